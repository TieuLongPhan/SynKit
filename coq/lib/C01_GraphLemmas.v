(** Lemmas about lib/LGraph.v shared by the graph-side properties (imported by C01, C02, C05, C06, C07, C09, C11):
    association lists, undirected edge lookup, the inductive form [simple] of "no duplicate unordered
    pair", extensional graph equality [geq], injective relabelling, induced subgraphs.  Stdlib only. *)
From Coq Require Import List NArith Bool FinFun.
From SK Require Import lib.LGraph.
Import ListNotations.
Set Implicit Arguments.

Lemma option_ext {A} (o1 o2 : option A) : (forall x, o1 = Some x <-> o2 = Some x) -> o1 = o2.
Proof.
  intros H. destruct o1 as [a|].
  - symmetry. apply H. reflexivity.
  - destruct o2 as [b|]; [|reflexivity]. apply H. reflexivity.
Qed.

Section Assoc.
Variable V : Type.
Implicit Type l : list (N * V).

Lemma assoc_app k l1 l2 :
  assoc k (l1 ++ l2) = match assoc k l1 with Some v => Some v | None => assoc k l2 end.
Proof.
  induction l1 as [|[k' v] r IH]; simpl; [reflexivity|].
  destruct (N.eqb k k'); [reflexivity|exact IH].
Qed.

Lemma assoc_none k l : assoc k l = None <-> ~ In k (map fst l).
Proof.
  induction l as [|[k' v] r IH]; simpl; [tauto|].
  destruct (N.eqb_spec k k') as [->|Hne].
  - split; [discriminate|]. intros H. exfalso. apply H. left. reflexivity.
  - rewrite IH. split; [intros H [E|I]; [congruence|tauto]|tauto].
Qed.

Lemma assoc_some_key k l v : assoc k l = Some v -> In k (map fst l).
Proof.
  intros H. apply assoc_in in H. change k with (fst (k, v)). apply in_map. exact H.
Qed.

Lemma assoc_is_some k l : In k (map fst l) -> exists v, assoc k l = Some v.
Proof.
  intros H. destruct (assoc k l) eqn:E; [eauto|]. apply assoc_none in E. contradiction.
Qed.

Lemma assoc_filter (f : N -> bool) k l :
  assoc k (filter (fun p => f (fst p)) l) = if f k then assoc k l else None.
Proof.
  induction l as [|[k' v] r IH]; simpl; [destruct (f k); reflexivity|].
  destruct (f k') eqn:Fk'; simpl.
  - destruct (N.eqb_spec k k') as [->|Hne]; [rewrite Fk'; reflexivity|exact IH].
  - destruct (N.eqb_spec k k') as [->|Hne]; [rewrite IH, Fk'; reflexivity|exact IH].
Qed.
Lemma NoDup_map_fst_filter (p : N * V -> bool) l : NoDup (map fst l) -> NoDup (map fst (filter p l)).
Proof.
  induction l as [|[k a] r IH]; simpl; intros Hn; [constructor|]. inversion Hn as [|? ? Hk Hr]; subst.
  destruct (p (k, a)); simpl; [constructor|]; auto.
  intros F. apply Hk. apply in_map_iff in F. destruct F as (q & E & F). apply filter_In in F.
  rewrite <- E. apply in_map. apply F.
Qed.
End Assoc.

Lemma assoc_map_val {V W} (f : N -> V -> W) k (l : list (N * V)) :
  assoc k (map (fun p => (fst p, f (fst p) (snd p))) l) = option_map (f k) (assoc k l).
Proof.
  induction l as [|[k' v] r IH]; simpl; [reflexivity|].
  destruct (N.eqb_spec k k') as [->|Hne]; [reflexivity|exact IH].
Qed.

Lemma map_fst_map_val {V W} (f : N -> V -> W) (l : list (N * V)) :
  map fst (map (fun p => (fst p, f (fst p) (snd p))) l) = map fst l.
Proof. rewrite map_map. apply map_ext. reflexivity. Qed.

(** relabelled association lists (injective key map) *)
Lemma assoc_map_key {V} (f : N -> N) (Hinj : forall a b, f a = f b -> a = b) k (l : list (N * V)) :
  assoc (f k) (map (fun p => (f (fst p), snd p)) l) = assoc k l.
Proof.
  induction l as [|[k' v] r IH]; simpl; [reflexivity|].
  destruct (N.eqb_spec k k') as [->|Hne].
  - rewrite N.eqb_refl. reflexivity.
  - destruct (N.eqb_spec (f k) (f k')) as [E|_]; [apply Hinj in E; contradiction|exact IH].
Qed.

Lemma eqb_map_inj (f : N -> N) (Hinj : forall a b, f a = f b -> a = b) p q : N.eqb (f p) (f q) = N.eqb p q.
Proof.
  destruct (N.eqb_spec p q) as [->|Hne]; [apply N.eqb_refl|].
  apply N.eqb_neq. intros F. apply Hinj in F. contradiction.
Qed.

Lemma mem_map_inj (f : N -> N) (Hinj : forall a b, f a = f b -> a = b) x l :
  mem (f x) (map f l) = mem x l.
Proof. induction l as [|y r IH]; simpl; [reflexivity|]. rewrite IH, (eqb_map_inj f Hinj). reflexivity. Qed.

Section Edges.
Variable B : Type.
Implicit Type es : list (N * N * B).

Lemma find_edge_app u v es1 es2 :
  find_edge u v (es1 ++ es2) = match find_edge u v es1 with Some x => Some x | None => find_edge u v es2 end.
Proof.
  induction es1 as [|[[a b] x] r IH]; simpl; [reflexivity|].
  destruct ((N.eqb a u && N.eqb b v) || (N.eqb a v && N.eqb b u)); [reflexivity|exact IH].
Qed.

Lemma match_pair_spec a b u v :
  (N.eqb a u && N.eqb b v) || (N.eqb a v && N.eqb b u) = true <-> (a = u /\ b = v) \/ (a = v /\ b = u).
Proof.
  rewrite orb_true_iff, !andb_true_iff, !N.eqb_eq. tauto.
Qed.

Lemma find_edge_some_in u v es x : find_edge u v es = Some x -> In (u, v, x) es \/ In (v, u, x) es.
Proof.
  induction es as [|[[a b] y] r IH]; simpl; [discriminate|].
  destruct ((N.eqb a u && N.eqb b v) || (N.eqb a v && N.eqb b u)) eqn:E.
  - intros [= ->]. apply match_pair_spec in E. destruct E as [[-> ->]|[-> ->]]; auto.
  - intros H. destruct (IH H); auto.
Qed.

Lemma find_edge_member_some u v es x : In (u, v, x) es \/ In (v, u, x) es -> exists y, find_edge u v es = Some y.
Proof.
  induction es as [|[[a b] w] r IH]; simpl; [tauto|].
  destruct ((N.eqb a u && N.eqb b v) || (N.eqb a v && N.eqb b u)) eqn:E; [eauto|].
  intros [[F|I]|[F|I]]; auto; inversion F; subst; rewrite !N.eqb_refl, ?orb_true_r in E; discriminate.
Qed.

Lemma find_edge_none u v es :
  find_edge u v es = None <-> forall x, ~ In (u, v, x) es /\ ~ In (v, u, x) es.
Proof.
  split.
  - intros E x. split; intros I; destruct (find_edge_member_some u v es x) as (y & F); auto; congruence.
  - intros H. destruct (find_edge u v es) as [x|] eqn:E; [|reflexivity].
    apply find_edge_some_in in E. destruct (H x). tauto.
Qed.

Lemma find_edge_not_none u v es x : In (u, v, x) es \/ In (v, u, x) es -> find_edge u v es <> None.
Proof. intros H E. rewrite find_edge_none in E. destruct (E x). tauto. Qed.

(** filtering on a symmetric test of the end points *)
Lemma find_edge_filter_sym (q : N -> N -> bool) u v es : (forall a b, q a b = q b a) ->
  find_edge u v (filter (fun e => let '(a, b, _) := e in q a b) es) = if q u v then find_edge u v es else None.
Proof.
  intros Hq. induction es as [|[[a b] x] r IH]; simpl; [destruct (q u v); reflexivity|].
  destruct ((N.eqb a u && N.eqb b v) || (N.eqb a v && N.eqb b u)) eqn:M.
  - assert (q a b = q u v) as -> by (apply match_pair_spec in M; destruct M as [[-> ->]|[-> ->]]; auto).
    destruct (q u v); [simpl; rewrite M; reflexivity|exact IH].
  - destruct (q a b); [simpl; rewrite M|]; exact IH.
Qed.

(** every stored entry for an unordered pair carries the same attribute *)
Definition consistent es : Prop :=
  forall a b x y, In (a, b, x) es \/ In (b, a, x) es -> In (a, b, y) es \/ In (b, a, y) es -> x = y.

Lemma find_edge_iff es : consistent es ->
  forall u v x, find_edge u v es = Some x <-> In (u, v, x) es \/ In (v, u, x) es.
Proof.
  intros Hc u v x. split; [apply find_edge_some_in|].
  intros H. destruct (find_edge u v es) as [y|] eqn:E.
  - f_equal. apply find_edge_some_in in E. eapply Hc; eauto.
  - exfalso. eapply find_edge_not_none; eauto.
Qed.

(** no duplicate unordered pair, inductive form *)
Inductive simple : list (N * N * B) -> Prop :=
| simple_nil : simple []
| simple_cons a b x es : find_edge a b es = None -> simple es -> simple ((a, b, x) :: es).

Lemma simple_find_edge es u v x : simple es -> In (u, v, x) es \/ In (v, u, x) es -> find_edge u v es = Some x.
Proof.
  induction 1 as [|a b w es Hn Hs IH]; intros H; simpl in *; [tauto|].
  assert ((a, b, w) = (u, v, x) \/ (a, b, w) = (v, u, x) \/ (In (u, v, x) es \/ In (v, u, x) es)) as [E|[E|T]] by tauto.
  - inversion E. rewrite !N.eqb_refl. reflexivity.
  - inversion E. rewrite !N.eqb_refl, orb_true_r. reflexivity.
  - destruct ((N.eqb a u && N.eqb b v) || (N.eqb a v && N.eqb b u)) eqn:M; [|exact (IH T)].
    (* the head joins u and v, yet the tail is said to hold no such pair *)
    exfalso. apply (find_edge_not_none u v es x T). apply match_pair_spec in M.
    destruct M as [[<- <-]|[<- <-]]; [|rewrite find_edge_sym]; exact Hn.
Qed.

Lemma simple_consistent es : simple es -> consistent es.
Proof.
  intros Hs a b x y Hx Hy. apply (simple_find_edge _ _ _ Hs) in Hx, Hy. congruence.
Qed.

Lemma simple_app es1 es2 :
  simple es1 -> simple es2 -> (forall a b x, In (a, b, x) es1 -> find_edge a b es2 = None) -> simple (es1 ++ es2).
Proof.
  induction 1 as [|a b x es Hn Hs IH]; intros H2 Hd; simpl; [exact H2|].
  constructor.
  - rewrite find_edge_app, Hn. apply (Hd a b x). left. reflexivity.
  - apply IH; [exact H2|]. intros a' b' x' I. apply (Hd a' b' x'). right. exact I.
Qed.

Lemma simple_filter (p : N * N * B -> bool) es : simple es -> simple (filter p es).
Proof.
  induction 1 as [|a b x es Hn Hs IH]; simpl; [constructor|].
  destruct (p (a, b, x)); [|exact IH]. constructor; [|exact IH].
  rewrite find_edge_none in *. intros y. destruct (Hn y) as [H1 H2].
  split; intros F; apply filter_In in F; tauto.
Qed.

Lemma simple_snoc es a b x : simple es -> find_edge a b es = None -> simple (es ++ [(a, b, x)]).
Proof.
  intros Hs Hn. apply simple_app; [exact Hs|constructor; [reflexivity|constructor]|].
  intros a' b' x' I. simpl.
  destruct ((N.eqb a a' && N.eqb b b') || (N.eqb a b' && N.eqb b a')) eqn:E; [|reflexivity].
  exfalso. apply match_pair_spec in E. rewrite find_edge_none in Hn. destruct (Hn x') as [H1 H2].
  destruct E as [[-> ->]|[-> ->]]; tauto.
Qed.
End Edges.

Lemma simple_map_attr {B C} (f : N -> N -> B -> C) (es : list (N * N * B)) :
  simple es -> simple (map (fun e => let '(a, b, x) := e in (a, b, f a b x)) es).
Proof.
  induction 1 as [|a b x es Hn Hs IH]; simpl; constructor; [|exact IH].
  rewrite find_edge_none in *. intros y.
  split; intros F; apply in_map_iff in F; destruct F as ([[a' b'] x'] & E & I); inversion E; subst.
  - destruct (Hn x'). tauto.
  - destruct (Hn x'). tauto.
Qed.

(** rewriting the attributes by a function that does not see the orientation *)
Lemma find_edge_map_sym {B C} (f : N -> N -> B -> C) u v (es : list (N * N * B)) : (forall a b x, f a b x = f b a x) ->
  find_edge u v (map (fun e => let '(a, b, x) := e in (a, b, f a b x)) es) = option_map (f u v) (find_edge u v es).
Proof.
  intros Hf. induction es as [|[[a b] x] r IH]; simpl; [reflexivity|].
  destruct ((N.eqb a u && N.eqb b v) || (N.eqb a v && N.eqb b u)) eqn:M; [|exact IH].
  apply match_pair_spec in M. destruct M as [[-> ->]|[-> ->]]; simpl; [|rewrite Hf]; reflexivity.
Qed.

Section WF.
Variables A B : Type.
Implicit Type g : lgraph A B.

Lemma wf_simple g : wf g -> simple (gedges g).
Proof.
  intros (_ & _ & H3). revert H3. generalize (gedges g) as es.
  induction es as [|[[a b] x] r IH]; intros H; constructor.
  - destruct (H [] a b x r eq_refl) as [_ H2]. exact H2.
  - apply IH. intros l1 a' b' x' l2 E. destruct (H ((a, b, x) :: l1) a' b' x' l2) as [H1 H2].
    + simpl. rewrite E. reflexivity.
    + split; [|exact H2]. simpl in H1.
      destruct ((N.eqb a a' && N.eqb b b') || (N.eqb a b' && N.eqb b a')); [discriminate|exact H1].
Qed.

Lemma simple_wf3 (es : list (N * N * B)) : simple es ->
  forall l1 a b x l2, es = l1 ++ (a, b, x) :: l2 -> find_edge a b l1 = None /\ find_edge a b l2 = None.
Proof.
  induction 1 as [|a0 b0 x0 es Hn Hs IH]; intros l1 a b x l2 E.
  - destruct l1; discriminate.
  - destruct l1 as [|e l1]; simpl in E; inversion E; subst.
    + split; [reflexivity|exact Hn].
    + destruct (IH l1 a b x l2 eq_refl) as [H1 H2]. split; [|exact H2]. simpl.
      destruct ((N.eqb a0 a && N.eqb b0 b) || (N.eqb a0 b && N.eqb b0 a)) eqn:M; [|exact H1].
      exfalso. apply match_pair_spec in M. rewrite find_edge_none in Hn. destruct (Hn x) as [N1 N2].
      destruct M as [[-> ->]|[-> ->]]; [apply N1|apply N2]; apply in_or_app; right; left; reflexivity.
Qed.

Lemma wf_intro g :
  NoDup (node_ids g) ->
  (forall a b x, In (a, b, x) (gedges g) -> In a (node_ids g) /\ In b (node_ids g) /\ a <> b) ->
  simple (gedges g) -> wf g.
Proof. intros H1 H2 H3. split; [exact H1|split; [exact H2|apply simple_wf3; exact H3]]. Qed.

Lemma wf_consistent g : wf g -> consistent (gedges g).
Proof. intros H. apply simple_consistent, wf_simple, H. Qed.

Lemma wf_adj_iff g : wf g -> forall u v x, adj g u v = Some x <-> In (u, v, x) (gedges g) \/ In (v, u, x) (gedges g).
Proof. intros H. apply find_edge_iff, wf_consistent, H. Qed.

Lemma wf_in_adj g a b x : wf g -> In (a, b, x) (gedges g) -> adj g a b = Some x.
Proof. intros H I. apply wf_adj_iff; auto. Qed.

Lemma wf_edge_nodes g a b x : wf g -> In (a, b, x) (gedges g) -> In a (node_ids g) /\ In b (node_ids g) /\ a <> b.
Proof. intros (_ & H & _). apply H. Qed.

Lemma label_some_node g n a : label g n = Some a -> In n (node_ids g).
Proof. apply assoc_some_key. Qed.

Lemma node_label_some g n : In n (node_ids g) -> exists a, label g n = Some a.
Proof. apply assoc_is_some. Qed.

Lemma has_node_spec g n : has_node g n = true <-> In n (node_ids g).
Proof.
  unfold has_node. destruct (label g n) eqn:E.
  - split; [intros _; eapply label_some_node; eauto|reflexivity].
  - split; [discriminate|]. intros I. apply assoc_none in E. contradiction.
Qed.

(** neighbours = adjacent nodes *)
Lemma in_nbrs g u v : In v (nbrs g u) <-> adj g u v <> None.
Proof.
  unfold nbrs, adj. rewrite in_flat_map. split.
  - intros ([[a b] x] & I & Hv). apply (find_edge_not_none u v (gedges g) x).
    destruct (N.eqb_spec a u) as [->|_]; [|destruct (N.eqb_spec b u) as [->|_]; [|destruct Hv]];
      destruct Hv as [->|[]]; auto.
  - intros H. destruct (find_edge u v (gedges g)) as [x|] eqn:E; [|congruence].
    apply find_edge_some_in in E. destruct E as [I|I]; eexists; (split; [exact I|]); simpl.
    + rewrite N.eqb_refl. left. reflexivity.
    + destruct (N.eqb_spec v u) as [->|_]; [|rewrite N.eqb_refl]; left; reflexivity.
Qed.
End WF.

(** * extensional equality *)
Definition geq {A B} (g h : lgraph A B) : Prop :=
  (forall n, label g n = label h n) /\ (forall u v, adj g u v = adj h u v).

Lemma geq_refl {A B} (g : lgraph A B) : geq g g.
Proof. split; reflexivity. Qed.
Lemma geq_sym {A B} (g h : lgraph A B) : geq g h -> geq h g.
Proof. intros [H1 H2]. split; intros; symmetry; auto. Qed.
Lemma geq_trans {A B} (g h k : lgraph A B) : geq g h -> geq h k -> geq g k.
Proof. intros [H1 H2] [H3 H4]. split; intros; etransitivity; eauto. Qed.

Section Relabel.
Variables A B : Type.
Variable f : N -> N.
Hypothesis Hinj : forall a b, f a = f b -> a = b.
Implicit Type g : lgraph A B.

Lemma find_edge_relabel u v (es : list (N * N * B)) :
  find_edge (f u) (f v) (map (fun e => let '(a, b, x) := e in (f a, f b, x)) es) = find_edge u v es.
Proof.
  induction es as [|[[a b] x] r IH]; simpl; [reflexivity|]. rewrite IH.
  rewrite !(eqb_map_inj f Hinj). reflexivity.
Qed.

Lemma label_relabel g n : label (relabel f g) (f n) = label g n.
Proof. unfold label, relabel. simpl. apply assoc_map_key. exact Hinj. Qed.

Lemma adj_relabel g u v : adj (relabel f g) (f u) (f v) = adj g u v.
Proof. unfold adj, relabel. simpl. apply find_edge_relabel. Qed.

Lemma has_node_relabel g n : has_node (relabel f g) (f n) = has_node g n.
Proof. unfold has_node. rewrite label_relabel. reflexivity. Qed.

Lemma node_ids_relabel g : node_ids (relabel f g) = map f (node_ids g).
Proof. unfold node_ids, relabel. simpl. rewrite !map_map. reflexivity. Qed.

Lemma nbrs_relabel g u : nbrs (relabel f g) (f u) = map f (nbrs g u).
Proof.
  unfold nbrs, relabel. simpl. induction (gedges g) as [|[[a b] x] r IH]; simpl; [reflexivity|].
  rewrite map_app, IH. f_equal.
  rewrite !(eqb_map_inj f Hinj). destruct (N.eqb a u); [reflexivity|]. destruct (N.eqb b u); reflexivity.
Qed.

Lemma simple_relabel (es : list (N * N * B)) :
  simple es -> simple (map (fun e => let '(a, b, x) := e in (f a, f b, x)) es).
Proof.
  induction 1 as [|a b x es Hn Hs IH]; simpl; constructor; [|exact IH].
  rewrite find_edge_relabel. exact Hn.
Qed.

Lemma wf_relabel g : wf g -> wf (relabel f g).
Proof.
  intros Hw. pose proof (wf_simple Hw) as Hs. destruct Hw as (H1 & H2 & _).
  apply wf_intro.
  - rewrite node_ids_relabel. apply Injective_map_NoDup; [exact Hinj|exact H1].
  - intros a b x I. unfold relabel in I. simpl in I. apply in_map_iff in I.
    destruct I as ([[a' b'] x'] & E & I). inversion E; subst. destruct (H2 _ _ _ I) as (Ha & Hb & Hab).
    rewrite node_ids_relabel. split; [apply in_map; exact Ha|split; [apply in_map; exact Hb|]].
    intros F. apply Hinj in F. contradiction.
  - unfold relabel. simpl. apply simple_relabel. exact Hs.
Qed.
End Relabel.

Section Induced.
Variables A B : Type.
Implicit Type g : lgraph A B.

Lemma label_induced g keep n : label (induced_sub g keep) n = if mem n keep then label g n else None.
Proof. unfold label, induced_sub. simpl. apply (assoc_filter (fun k => mem k keep)). Qed.

Lemma node_ids_induced g keep n :
  In n (node_ids (induced_sub g keep)) <-> In n (node_ids g) /\ In n keep.
Proof.
  unfold node_ids, induced_sub. simpl. rewrite in_map_iff. split.
  - intros ([k a] & E & I). simpl in E. subst. apply filter_In in I. destruct I as [I M]. simpl in M.
    split; [change n with (fst (n, a)); apply in_map; exact I|apply mem_spec; exact M].
  - intros [I M]. apply in_map_iff in I. destruct I as ([k a] & E & I). simpl in E. subst.
    exists (n, a). split; [reflexivity|]. apply filter_In. split; [exact I|]. simpl. apply mem_spec. exact M.
Qed.

Lemma in_edges_induced g keep a b x :
  In (a, b, x) (gedges (induced_sub g keep)) <-> In (a, b, x) (gedges g) /\ In a keep /\ In b keep.
Proof.
  unfold induced_sub. simpl. rewrite filter_In, andb_true_iff, !mem_spec. tauto.
Qed.

Lemma adj_induced g keep u v : wf g ->
  adj (induced_sub g keep) u v = if mem u keep && mem v keep then adj g u v else None.
Proof. intros _. apply (find_edge_filter_sym (fun a b => mem a keep && mem b keep)). intros a b. apply andb_comm. Qed.

Lemma wf_induced g keep : wf g -> wf (induced_sub g keep).
Proof.
  intros Hw. pose proof (wf_simple Hw) as Hs. destruct Hw as (H1 & H2 & _). apply wf_intro.
  - apply NoDup_map_fst_filter. exact H1.
  - intros a b x I. apply in_edges_induced in I. destruct I as (I & Ia & Ib).
    destruct (H2 _ _ _ I) as (Na & Nb & Hab). rewrite !node_ids_induced. tauto.
  - unfold induced_sub. simpl. apply simple_filter. exact Hs.
Qed.
End Induced.

(** uniform calling conventions: the data are inferred from the hypotheses *)
Arguments wf_in_adj [A B g a b x] _ _.
Arguments wf_edge_nodes [A B g a b x] _ _.
Arguments label_some_node [A B g n a] _.
Arguments node_label_some [A B g n] _.
Arguments NoDup_map_fst_filter [V] p l _.
Arguments assoc_map_key [V f] Hinj k l.
Arguments mem_map_inj [f] Hinj x l.
Arguments find_edge_relabel [B f] Hinj u v es.
Arguments label_relabel [A B f] Hinj g n.
Arguments adj_relabel [A B f] Hinj g u v.
Arguments has_node_relabel [A B f] Hinj g n.
Arguments node_ids_relabel [A B] f g.
Arguments nbrs_relabel [A B f] Hinj g u.
Arguments simple_relabel [B f] Hinj [es] _.
Arguments wf_relabel [A B f] Hinj [g] _.
