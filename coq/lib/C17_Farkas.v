(** Easy direction of Stiemke / Gordan on integer matrices given as lists of rows.
    Executable certificate checkers and their soundness, for EVERY matrix:

      check_pos  n S y = true  ->  conservative n S          (y > 0,  y^T S = 0)
      check_neg  n S x = true  ->  ~ conservative n S        (S x >= 0, S x <> 0)
      check_fpos n S v = true  ->  consistent n S            (v > 0,  S v = 0)
      check_fneg n S y = true  ->  ~ consistent n S          (y^T S >= 0, y^T S <> 0)

    [n] is the number of columns; rows shorter than [n] are read as zero-padded and entries beyond
    column [n] are ignored (so no well-formedness side condition is needed).
    Style: stdlib lists + Z.  The certificate FINDER (exact simplex in harness/gen/c17_exact.py) is untrusted. *)
From Coq Require Import List ZArith Lia Bool.
Import ListNotations.
Local Open Scope Z_scope.

Fixpoint dot (u v : list Z) : Z :=
  match u, v with
  | x :: u', y :: v' => x * y + dot u' v'
  | _, _ => 0
  end.

Definition col (j : nat) (S : list (list Z)) : list Z := map (fun row => nth j row 0) S.
Definition matvec (S : list (list Z)) (x : list Z) : list Z := map (fun row => dot row x) S.
Definition vecmat (n : nat) (y : list Z) (S : list (list Z)) : list Z := map (fun j => dot y (col j S)) (seq 0 n).

Definition all_pos (v : list Z) : bool := forallb (fun t => 0 <? t) v.
Definition all_nonneg (v : list Z) : bool := forallb (fun t => 0 <=? t) v.
Definition all_zero (v : list Z) : bool := forallb (fun t => t =? 0) v.
Definition some_nonzero (v : list Z) : bool := existsb (fun t => negb (t =? 0)) v.

(** a strictly positive conservation law exists *)
Definition conservative (n : nat) (S : list (list Z)) : Prop :=
  exists y, length y = length S /\ Forall (fun t => 0 < t) y /\ Forall (fun t => t = 0) (vecmat n y S).
(** a strictly positive steady flux exists *)
Definition consistent (n : nat) (S : list (list Z)) : Prop :=
  exists v, length v = n /\ Forall (fun t => 0 < t) v /\ Forall (fun t => t = 0) (matvec S v).

Definition check_pos (n : nat) (S : list (list Z)) (y : list Z) : bool :=
  (length y =? length S)%nat && all_pos y && all_zero (vecmat n y S).
Definition check_neg (n : nat) (S : list (list Z)) (x : list Z) : bool :=
  (length x =? n)%nat && all_nonneg (matvec S x) && some_nonzero (matvec S x).
Definition check_fpos (n : nat) (S : list (list Z)) (v : list Z) : bool :=
  (length v =? n)%nat && all_pos v && all_zero (matvec S v).
Definition check_fneg (n : nat) (S : list (list Z)) (y : list Z) : bool :=
  (length y =? length S)%nat && all_nonneg (vecmat n y S) && some_nonzero (vecmat n y S).

(** certificates and the decision they justify *)
Inductive fcert := FPos (v : list Z) | FNeg (v : list Z).
Definition decide_conservative (n : nat) (S : list (list Z)) (c : fcert) : option bool :=
  match c with
  | FPos y => if check_pos n S y then Some true else None
  | FNeg x => if check_neg n S x then Some false else None
  end.
Definition decide_consistent (n : nat) (S : list (list Z)) (c : fcert) : option bool :=
  match c with
  | FPos v => if check_fpos n S v then Some true else None
  | FNeg y => if check_fneg n S y then Some false else None
  end.

Lemma forallb_Forall_iff {A} (f : A -> bool) (P : A -> Prop) l :
  (forall x, f x = true <-> P x) -> (forallb f l = true <-> Forall P l).
Proof. intros H. rewrite forallb_forall, Forall_forall. split; intros G x I; apply H, G, I. Qed.

Lemma all_pos_spec v : all_pos v = true <-> Forall (fun t => 0 < t) v.
Proof. apply forallb_Forall_iff. intros t. apply Z.ltb_lt. Qed.
Lemma all_nonneg_spec v : all_nonneg v = true <-> Forall (fun t => 0 <= t) v.
Proof. apply forallb_Forall_iff. intros t. apply Z.leb_le. Qed.
Lemma all_zero_spec v : all_zero v = true <-> Forall (fun t => t = 0) v.
Proof. apply forallb_Forall_iff. intros t. apply Z.eqb_eq. Qed.
Lemma some_nonzero_spec v : some_nonzero v = true <-> Exists (fun t => t <> 0) v.
Proof.
  unfold some_nonzero. rewrite existsb_exists, Exists_exists.
  split; intros (x & I & H); exists x; split; auto.
  - destruct (Z.eqb_spec x 0); [discriminate|auto].
  - destruct (Z.eqb_spec x 0); [contradiction|auto].
Qed.

Lemma dot_comm u : forall v, dot u v = dot v u.
Proof. induction u as [|x u IH]; intros [|y v]; simpl; auto. rewrite IH. lia. Qed.

Lemma dot_zero_l u v : Forall (fun t => t = 0) u -> dot u v = 0.
Proof.
  intros H; revert v; induction H as [|x u Hx _ IH]; intros v; [reflexivity|].
  destruct v as [|y v]; [reflexivity|]. simpl. rewrite IH. subst. lia.
Qed.
Lemma dot_zero_r u v : Forall (fun t => t = 0) v -> dot u v = 0.
Proof. rewrite dot_comm. apply dot_zero_l. Qed.

Lemma dot_nonneg y : forall t, Forall (fun a => 0 < a) y -> Forall (fun a => 0 <= a) t -> 0 <= dot y t.
Proof.
  induction y as [|a y IH]; intros t Hy Ht; [simpl; lia|].
  destruct t as [|b t]; [simpl; lia|].
  apply Forall_cons_iff in Hy. destruct Hy as [Ha Hy]. apply Forall_cons_iff in Ht. destruct Ht as [Hb Ht].
  simpl. specialize (IH t Hy Ht). nia.
Qed.
(** y > 0, t >= 0, t <> 0, same length  ->  y.t > 0 *)
Lemma dot_pos y : forall t, length y = length t -> Forall (fun a => 0 < a) y -> Forall (fun a => 0 <= a) t ->
  Exists (fun a => a <> 0) t -> 0 < dot y t.
Proof.
  induction y as [|a y IH]; intros t L Hy Ht He.
  - destruct t; [inversion He|discriminate].
  - destruct t as [|b t]; [discriminate|].
    apply Forall_cons_iff in Hy. destruct Hy as [Ha Hy]. apply Forall_cons_iff in Ht. destruct Ht as [Hb Ht].
    simpl. injection L as L. apply Exists_cons in He. destruct He as [He|He].
    + pose proof (@dot_nonneg y t Hy Ht). nia.
    + specialize (IH t L Hy Ht He). nia.
Qed.
Lemma dot_seq_expand (x : list Z) : forall (f : nat -> Z) k,
  dot (map f (seq k (length x))) x = dot (map (fun j => f (k + j)%nat) (seq 0 (length x))) x.
Proof.
  intros f k. f_equal. generalize (length x) as n. intros n. revert k.
  induction n as [|n IH]; intros k; simpl; [reflexivity|].
  rewrite Nat.add_0_r, IH, <- seq_shift, map_map. f_equal. apply map_ext. intros j. now rewrite Nat.add_succ_r.
Qed.

Lemma dot_map_zero {A} (f : A -> Z) l x : (forall j, f j = 0) -> dot (map f l) x = 0.
Proof.
  intros H. apply dot_zero_l, Forall_map, Forall_forall. intros j _. apply H.
Qed.

Lemma dot_row_as_sum (row : list Z) : forall x, dot row x = dot (map (fun j => nth j row 0) (seq 0 (length x))) x.
Proof.
  induction row as [|a row IH]; intros x.
  - symmetry. apply dot_map_zero. now intros [|j].
  - destruct x as [|b x]; [reflexivity|]. simpl. f_equal. rewrite IH.
    rewrite <- seq_shift, map_map. reflexivity.
Qed.

Lemma dot_scale_l c u : forall v, dot (map (Z.mul c) u) v = c * dot u v.
Proof. induction u as [|a u IH]; intros [|b v]; simpl; try lia. rewrite IH. lia. Qed.

Lemma dot_lincomb {A} c (f g : A -> Z) l : forall x,
  dot (map (fun j => c * f j + g j) l) x = c * dot (map f l) x + dot (map g l) x.
Proof. induction l as [|j l IH]; intros [|b x]; simpl; try lia. rewrite IH. lia. Qed.

(** duality:  y . (S x) = (y^T S) . x   whenever x has exactly n entries *)
Lemma duality n (S : list (list Z)) : forall y x, length x = n ->
  dot y (matvec S x) = dot (vecmat n y S) x.
Proof.
  intros y x <-. revert y. induction S as [|row S IH]; intros [|a y]; simpl.
  1-3: symmetry; apply dot_map_zero; reflexivity.
  rewrite IH, (dot_row_as_sum row x). symmetry. apply dot_lincomb.
Qed.

(** the four checkers have the same shape: a length test and two tests on a vector *)
Lemma check_unpack (a b : nat) (p q : bool) : (a =? b)%nat && p && q = true -> a = b /\ p = true /\ q = true.
Proof.
  intros H. apply andb_prop in H. destruct H as [H Hq]. apply andb_prop in H. destruct H as [Hl Hp].
  apply Nat.eqb_eq in Hl. auto.
Qed.

Theorem pos_cert_sound n S y : check_pos n S y = true -> conservative n S.
Proof.
  intros H. apply check_unpack in H. destruct H as (L & P & Z).
  exists y. split; [exact L|]. split; [apply all_pos_spec, P | apply all_zero_spec, Z].
Qed.

Theorem fpos_cert_sound n S v : check_fpos n S v = true -> consistent n S.
Proof.
  intros H. apply check_unpack in H. destruct H as (L & P & Z).
  exists v. split; [exact L|]. split; [apply all_pos_spec, P | apply all_zero_spec, Z].
Qed.

(** a strictly positive y with y^T S = 0 and an x with S x >= 0, S x <> 0 cannot coexist: y . (S x) would be both > 0 and 0 *)
Theorem neg_cert_sound n S x : check_neg n S x = true -> ~ conservative n S.
Proof.
  intros H (y & Ly & Py & Zy). apply check_unpack in H. destruct H as (Lx & Hn & Hs).
  apply all_nonneg_spec in Hn. apply some_nonzero_spec in Hs.
  assert (P : 0 < dot y (matvec S x)) by (apply dot_pos; auto; unfold matvec; now rewrite map_length).
  rewrite (duality n S y x Lx), (dot_zero_l _ x Zy) in P. lia.
Qed.

Theorem fneg_cert_sound n S y : check_fneg n S y = true -> ~ consistent n S.
Proof.
  intros H (v & Lv & Pv & Zv). apply check_unpack in H. destruct H as (Ly & Hn & Hs).
  apply all_nonneg_spec in Hn. apply some_nonzero_spec in Hs.
  assert (P : 0 < dot v (vecmat n y S)) by (apply dot_pos; auto; unfold vecmat; now rewrite map_length, seq_length).
  rewrite dot_comm, <- (duality n S y v Lv), (dot_zero_r y _ Zv) in P. lia.
Qed.

(** a certificate of either kind, checked by a sound pair of checkers, decides the question *)
Lemma decide_sound (P : Prop) (pos neg : list Z -> bool) :
  (forall y, pos y = true -> P) -> (forall x, neg x = true -> ~ P) -> forall c b,
  match c with FPos y => if pos y then Some true else None | FNeg x => if neg x then Some false else None end = Some b ->
  (b = true <-> P).
Proof.
  intros Hp Hn [y|x] b.
  - destruct (pos y) eqn:E; [|discriminate]. intros [= <-]. split; eauto.
  - destruct (neg x) eqn:E; [|discriminate]. intros [= <-]. split; [discriminate|]. intros C. now apply Hn in E.
Qed.

Theorem decide_conservative_sound n S c b : decide_conservative n S c = Some b -> (b = true <-> conservative n S).
Proof. exact (decide_sound _ _ _ (pos_cert_sound n S) (neg_cert_sound n S) c b). Qed.

Theorem decide_consistent_sound n S c b : decide_consistent n S c = Some b -> (b = true <-> consistent n S).
Proof. exact (decide_sound _ _ _ (fpos_cert_sound n S) (fneg_cert_sound n S) c b). Qed.

Example farkas_ex1 : decide_conservative 2 [[-1; 1]; [-1; 1]; [1; -1]] (FPos [1; 1; 2]) = Some true.   (* A+B <-> C *)
Proof. reflexivity. Qed.
Example farkas_ex2 : decide_conservative 1 [[1]] (FNeg [1]) = Some false.                               (* 0 -> A *)
Proof. reflexivity. Qed.
Example farkas_ex3 : decide_consistent 2 [[1; 2]] (FNeg [1]) = Some false.                              (* 0 -> A, 0 -> 2A *)
Proof. reflexivity. Qed.
Example farkas_ex4 : decide_consistent 2 [[-1; 1]; [1; -1]] (FPos [1; 1]) = Some true.                  (* A <-> B *)
Proof. reflexivity. Qed.
