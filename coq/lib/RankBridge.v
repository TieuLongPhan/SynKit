(* Executable rank-certificate checker over list-of-lists of Z, proved sound against MathComp's \rank over rat.
   Imports: mathcomp ssreflect/algebra + mathcomp.zify.ssrZ. *)
From mathcomp Require Import ssreflect ssrbool eqtype ssrnat seq fintype bigop ssralg ssrint rat matrix mxalgebra.
From mathcomp Require Import ssrZ.
From Coq Require Import ZArith.
Set Implicit Arguments. Unset Strict Implicit. Unset Printing Implicit Defensive.
Import GRing.Theory.
Local Open Scope ring_scope.

Lemma rank_cert (F : fieldType) m n r (S : 'M[F]_(m,n)) (A : 'M[F]_(m,r)) (B : 'M[F]_(r,n))
   (A' : 'M[F]_(r,m)) (B' : 'M[F]_(n,r)) (d : F) :
  S = A *m B -> d != 0 -> A' *m S *m B' = d%:M -> \rank S = r.
Proof.
move=> eS dn0 H; apply/eqP; rewrite eqn_leq; apply/andP; split.
- rewrite eS; apply: leq_trans (mulmx_max_rank _ _) _; exact: leqnn.
- have: \rank (d%:M : 'M[F]_r) = r by rewrite -scalemx1 mxrank_scale_nz // mxrank1.
  move=> <-; rewrite -H. apply: leq_trans (mxrankM_maxl _ _) _. exact: mxrankM_maxr.
Qed.

(* the checker on lists of lists of Z: what the models call *)
Definition getz (M : seq (seq Z)) (i j : nat) : Z := nth 0%Z (nth [::] M i) j.
Definition sumz (k : nat) (f : nat -> Z) : Z := foldr (fun l acc => (f l + acc)%Z) 0%Z (iota 0 k).
Definition mmulz (m k n : nat) (A B : seq (seq Z)) : seq (seq Z) :=
  mkseq (fun i => mkseq (fun j => sumz k (fun l => (getz A i l * getz B l j)%Z)) n) m.
Definition eqmz (m n : nat) (A B : seq (seq Z)) : bool :=
  all (fun i => all (fun j => Z.eqb (getz A i j) (getz B i j)) (iota 0 n)) (iota 0 m).
Definition scalarz (r : nat) (d : Z) : seq (seq Z) := mkseq (fun i => mkseq (fun j => if i == j then d else 0%Z) r) r.
Definition check_rank (m n r : nat) (S A B A' B' : seq (seq Z)) (d : Z) : bool :=
  [&& eqmz m n S (mmulz m r n A B), ~~ Z.eqb d 0 &
      eqmz r r (mmulz r n r (mmulz r m n A' S) B') (scalarz r d)].

(* its reading as MathComp matrices over rat *)
Definition zr (z : Z) : rat := (int_of_Z z)%:~R.
Definition toM (m n : nat) (M : seq (seq Z)) : 'M[rat]_(m,n) := \matrix_(i, j) zr (getz M i j).

Lemma zrD x y : zr (x + y)%Z = zr x + zr y.
Proof. by rewrite /zr rmorphD /= rmorphD. Qed.
Lemma zrM x y : zr (x * y)%Z = zr x * zr y.
Proof. by rewrite /zr rmorphM /= rmorphM. Qed.
Lemma zr0 : zr 0%Z = 0. Proof. by []. Qed.
Lemma zr_eq0 d : (zr d == 0) = Z.eqb d 0.
Proof.
rewrite /zr intr_eq0. case: Z.eqb_spec => [->//|ne]. apply/negbTE/eqP => e.
by apply: ne; rewrite -(int_of_ZK d) e.
Qed.

Lemma zr_sumz k (f : nat -> Z) : zr (sumz k f) = \sum_(l < k) zr (f l).
Proof.
rewrite /sumz -(big_mkord xpredT (fun l => zr (f l))) /index_iota subn0.
elim: (iota 0 k) => [|a s IH]; first by rewrite big_nil.
by rewrite /= zrD IH big_cons.
Qed.

Lemma getz_mmulz m k n A B (i : 'I_m) (j : 'I_n) :
  getz (mmulz m k n A B) i j = sumz k (fun l => (getz A i l * getz B l j)%Z).
Proof. by rewrite /getz /mmulz (nth_mkseq _ _ (ltn_ord i)) (nth_mkseq _ _ (ltn_ord j)). Qed.

Lemma toM_mul m k n A B : toM m n (mmulz m k n A B) = toM m k A *m toM k n B.
Proof.
apply/matrixP => i j; rewrite !mxE getz_mmulz zr_sumz.
by apply: eq_bigr => l _; rewrite !mxE zrM.
Qed.

Lemma eqmzP m n A B : eqmz m n A B -> toM m n A = toM m n B.
Proof.
move=> /allP H; apply/matrixP => i j; rewrite !mxE.
have ii : (i : nat) \in iota 0 m by rewrite mem_iota /= add0n.
have jj : (j : nat) \in iota 0 n by rewrite mem_iota /= add0n.
have /allP Hi := H _ ii.
by have /Z.eqb_spec -> := Hi _ jj.
Qed.

Lemma toM_scalar r d : toM r r (scalarz r d) = (zr d)%:M.
Proof.
apply/matrixP => i j; rewrite !mxE /getz /scalarz (nth_mkseq _ _ (ltn_ord i)) (nth_mkseq _ _ (ltn_ord j)).
by rewrite -val_eqE; case: eqP => // _; rewrite ?mulr1n ?mulr0n.
Qed.

Theorem check_rank_sound m n r S A B A' B' d :
  check_rank m n r S A B A' B' d -> \rank (toM m n S) = r.
Proof.
case/and3P => /eqmzP eS dn0 /eqmzP eI.
apply: (@rank_cert _ m n r _ (toM m r A) (toM r n B) (toM r m A') (toM n r B') (zr d)).
- by rewrite eS toM_mul.
- by rewrite zr_eq0.
- by rewrite -!toM_mul eI toM_scalar.
Qed.

Print Assumptions check_rank_sound.

(* executable sanity: S = [[1,2],[2,4]] has rank 1: A=[[1],[2]], B=[[1,2]], A'=[[1,0]], B'=[[1],[0]], d=1 *)
Eval vm_compute in check_rank 2 2 1 [:: [:: 1; 2]; [:: 2; 4]]%Z [:: [:: 1]; [:: 2]]%Z [:: [:: 1; 2]]%Z [:: [:: 1; 0]]%Z [:: [:: 1]; [:: 0]]%Z 1%Z.
