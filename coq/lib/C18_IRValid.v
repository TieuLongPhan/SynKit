(** C18 — generic facts about ordered partitions in the individualisation-refinement search of lib/IRCore.v:
    refinement and individualisation keep "ordered partition of the node list", leaves are prefix ++ permutation of
    the nodes, the fuel [|nodes| + 1] always reaches a leaf. *)
From Coq Require Import List NArith ZArith Bool Arith Lia Permutation.
From SK Require Import lib.IRSortKeys lib.IRCore lib.IRSearch.
Import ListNotations.

(* ---------------- ordered partitions of the node set ---------------- *)
Section Valid.
Variable S : Type.
Variable leb : S -> S -> bool.
Hypothesis leb_total : forall a b, leb a b = true \/ leb b a = true.
Hypothesis leb_trans : forall a b c, leb a b = true -> leb b c = true -> leb a c = true.
Hypothesis leb_antisym : forall a b, leb a b = true -> leb b a = true -> a = b.
Variable sig : partition -> N -> S.

Lemma ssorted_NoDup l : ssorted leb l -> NoDup l.
Proof.
  induction 1 as [|x l Hs IH Hx]; constructor; auto.
  intro I. specialize (Hx _ I). rewrite (ltb_irrefl leb leb_total) in Hx. discriminate.
Qed.

Lemma groups_one (key : N -> S) (F : S -> list N) x ks :
  NoDup ks -> In (key x) ks ->
  Permutation (flat_map (fun k => if eqb leb (key x) k then x :: F k else F k) ks) (x :: flat_map F ks).
Proof.
  induction ks as [|k ks IH]; intros Hnd Hin; [contradiction|].
  inversion Hnd as [|? ? Hk Hnd']; subst. simpl.
  destruct (eqb leb (key x) k) eqn:E.
  - apply (eqb_eq leb leb_total leb_antisym) in E. subst k. simpl. apply perm_skip. apply Permutation_app_head.
    assert (H : forall ks', ~ In (key x) ks' ->
               flat_map (fun k => if eqb leb (key x) k then x :: F k else F k) ks' = flat_map F ks').
    { induction ks' as [|k' ks' IH']; simpl; intros Hn; auto.
      destruct (eqb leb (key x) k') eqn:E'.
      - apply (eqb_eq leb leb_total leb_antisym) in E'. exfalso. apply Hn. left. auto.
      - f_equal. apply IH'. intro I. apply Hn. right. auto. }
    rewrite H by auto. apply Permutation_refl.
  - destruct Hin as [->|Hin].
    + rewrite (proj2 (eqb_eq leb leb_total leb_antisym (key x) (key x)) eq_refl) in E. discriminate.
    + eapply perm_trans; [apply Permutation_app_head; apply IH; auto|].
      apply Permutation_sym. apply Permutation_middle.
Qed.

Lemma groups_perm (key : N -> S) c : forall ks, NoDup ks -> (forall v, In v c -> In (key v) ks) ->
  Permutation (flat_map (fun k => filter (fun v => eqb leb (key v) k) c) ks) c.
Proof.
  induction c as [|x c IH]; intros ks Hnd Hcov; simpl.
  - clear. induction ks; simpl; auto.
  - eapply perm_trans; [apply (groups_one key (fun k => filter (fun v => eqb leb (key v) k) c) x ks Hnd); apply Hcov; left; auto|].
    apply perm_skip. apply IH; auto. intros; apply Hcov; right; auto.
Qed.

Lemma concat_map_flat_map {X Y} (f : X -> list Y) l : concat (map f l) = flat_map f l.
Proof. induction l; simpl; auto. f_equal; auto. Qed.

Lemma split_cell_perm P c : Permutation (concat (split_cell leb sig P c)) c.
Proof.
  unfold split_cell. cbv zeta. destruct (length c <=? 1); [simpl; rewrite app_nil_r; auto|].
  destruct (length (keys leb sig P c) <=? 1); [simpl; rewrite app_nil_r; auto|].
  rewrite <- flat_map_concat_map. unfold group.
  apply (groups_perm (sig P)).
  - apply ssorted_NoDup. apply sort_dedup_sorted; auto.
  - intros v Hv. unfold keys. apply sort_dedup_in; auto. apply in_map. auto.
Qed.

Lemma split_cell_nonempty P c : c <> [] -> Forall (fun d => d <> []) (split_cell leb sig P c).
Proof.
  intros Hc. unfold split_cell. destruct (length c <=? 1); [constructor; auto|].
  destruct (length (keys leb sig P c) <=? 1); [constructor; auto|].
  apply Forall_forall. intros d Hd. apply in_map_iff in Hd. destruct Hd as (k & <- & Hk).
  unfold keys in Hk. apply sort_dedup_in in Hk; auto. apply in_map_iff in Hk. destruct Hk as (v & <- & Hv).
  unfold group. intro E.
  assert (I : In v (filter (fun v0 => eqb leb (sig P v0) (sig P v)) c)).
  { apply filter_In. split; auto. apply (eqb_eq leb leb_total leb_antisym). auto. }
  rewrite E in I. contradiction.
Qed.

Lemma split_cell_length P c : 1 <= length (split_cell leb sig P c).
Proof.
  unfold split_cell. cbv zeta. destruct (length c <=? 1); [simpl; lia|].
  destruct (length (keys leb sig P c) <=? 1) eqn:E; [simpl; lia|].
  rewrite map_length. apply Nat.leb_gt in E. lia.
Qed.

Lemma split_cell_single P x : split_cell leb sig P [x] = [[x]].
Proof. reflexivity. Qed.

Definition vpart (nodes : list N) (P : partition) : Prop :=
  Permutation (concat P) nodes /\ Forall (fun c => c <> []) P.

Lemma refine_step_concat P : Permutation (concat (refine_step leb sig P)) (concat P).
Proof.
  unfold refine_step. generalize P at 1 as Q. intros Q. induction P as [|c P IH]; simpl; auto.
  rewrite concat_app. apply Permutation_app; auto. apply split_cell_perm.
Qed.
Lemma refine_step_nonempty P : Forall (fun c => c <> []) P -> Forall (fun c => c <> []) (refine_step leb sig P).
Proof.
  unfold refine_step. generalize P at 2 as Q. intros Q. induction 1 as [|c P Hc HP IH]; simpl; auto.
  apply Forall_app. split; auto. apply split_cell_nonempty; auto.
Qed.
Lemma refine_step_length P : length P <= length (refine_step leb sig P).
Proof.
  unfold refine_step. generalize P at 2 as Q. intros Q. induction P as [|c P IH]; simpl; auto.
  rewrite app_length. pose proof (split_cell_length Q c). lia.
Qed.
Lemma refine_step_single P x : In [x] P -> In [x] (refine_step leb sig P).
Proof.
  intros H. unfold refine_step. apply in_flat_map. exists [x]. split; auto. left. auto.
Qed.

Lemma refine_vpart nodes fuel : forall P, vpart nodes P -> vpart nodes (refine leb sig fuel P).
Proof.
  induction fuel as [|f IH]; intros P HP; simpl; auto.
  assert (H1 : vpart nodes (refine_step leb sig P)).
  { destruct HP as [Hc Hn]. split; [eapply perm_trans; [apply refine_step_concat|auto]|apply refine_step_nonempty; auto]. }
  destruct (_ =? _); auto.
Qed.
Lemma refine_length fuel : forall P, length P <= length (refine leb sig fuel P).
Proof.
  induction fuel as [|f IH]; intros P; simpl; auto.
  pose proof (refine_step_length P). destruct (_ =? _); auto. specialize (IH (refine_step leb sig P)). lia.
Qed.
Lemma refine_single fuel x : forall P, In [x] P -> In [x] (refine leb sig fuel P).
Proof.
  induction fuel as [|f IH]; intros P H; simpl; auto.
  pose proof (refine_step_single P x H). destruct (_ =? _); auto.
Qed.
End Valid.

(* ---------------- individualisation ---------------- *)
Lemma first_big_spec P i : first_big P = Some i -> i < length P /\ 1 < length (nth i P []).
Proof.
  revert i. induction P as [|c P IH]; simpl; intros i H; [discriminate|].
  destruct (1 <? length c) eqn:E.
  - inversion H; subst. simpl. apply Nat.ltb_lt in E. lia.
  - destruct (first_big P) as [j|]; [|discriminate]. inversion H; subst. simpl.
    destruct (IH j eq_refl). lia.
Qed.

Lemma split_nth {X} (l : list X) i d : i < length l -> l = firstn i l ++ nth i l d :: skipn (Datatypes.S i) l.
Proof.
  revert i. induction l as [|x l IH]; simpl; intros i H; [lia|].
  destruct i as [|i]; simpl; auto. f_equal. apply IH. lia.
Qed.

Lemma rest_perm v c : NoDup c -> In v c -> Permutation (v :: rest v c) c.
Proof.
  intros Hnd Hin. apply NoDup_Permutation; auto.
  - constructor.
    + unfold rest. intro I. apply filter_In in I. destruct I as [_ I]. rewrite N.eqb_refl in I. discriminate.
    + unfold rest. apply NoDup_filter. auto.
  - intros x. simpl. unfold rest. rewrite filter_In. split.
    + intros [<-|[I _]]; auto.
    + intros I. destruct (N.eqb_spec x v) as [->|Hne]; [left; reflexivity|]. right. split; [exact I|].
      reflexivity.
Qed.

Lemma NoDup_app_l {X} (l1 l2 : list X) : NoDup (l1 ++ l2) -> NoDup l1.
Proof.
  induction l1 as [|x l1 IH]; simpl; intros H; [constructor|].
  inversion H; subst. constructor; auto. intro I. apply H2. apply in_or_app. auto.
Qed.
Lemma NoDup_app_r {X} (l1 l2 : list X) : NoDup (l1 ++ l2) -> NoDup l2.
Proof. induction l1 as [|x l1 IH]; simpl; intros H; auto. inversion H; auto. Qed.
Lemma NoDup_app_disj {X} (l1 l2 : list X) x : NoDup (l1 ++ l2) -> In x l1 -> In x l2 -> False.
Proof.
  induction l1 as [|y l1 IH]; simpl; intros H H1 H2; [contradiction|].
  inversion H; subst. destruct H1 as [->|H1]; [apply H4; apply in_or_app; auto|eauto].
Qed.

Lemma NoDup_app_intro {X} (l1 l2 : list X) : NoDup l1 -> NoDup l2 -> (forall x, In x l1 -> In x l2 -> False) -> NoDup (l1 ++ l2).
Proof.
  induction l1 as [|y l1 IH]; simpl; intros H1 H2 Hd; auto.
  inversion H1; subst. constructor.
  - intro I. apply in_app_or in I. destruct I as [I|I]; auto. apply (Hd y); auto.
  - apply IH; auto. intros x Hx1 Hx2. apply (Hd x); auto.
Qed.

Lemma NoDup_concat_cell (P : partition) c : NoDup (concat P) -> In c P -> NoDup c.
Proof.
  intros Hnd Hin. apply in_split in Hin. destruct Hin as (l1 & l2 & ->).
  rewrite concat_app in Hnd. simpl in Hnd. apply NoDup_app_r in Hnd. apply NoDup_app_l in Hnd. auto.
Qed.

(** individualising [v] in the first non-singleton cell [c]: the cell is replaced by [[v]] and the rest of [c] *)
Lemma individualise_split nodes P i v :
  NoDup nodes -> vpart nodes P -> first_big P = Some i -> In v (nth i P []) ->
  exists hd c tl rr, P = hd ++ c :: tl /\ hd = firstn i P /\ individualise P i v = hd ++ [v] :: rr :: tl /\
                     rr <> [] /\ Permutation (v :: rr) c.
Proof.
  intros Hnd [Hc Hne] Hfb Hv. destruct (first_big_spec P i Hfb) as [Hi Hbig].
  exists (firstn i P), (nth i P []), (skipn (Datatypes.S i) P), (rest v (nth i P [])).
  assert (HP : P = firstn i P ++ nth i P [] :: skipn (Datatypes.S i) P) by (apply split_nth; auto).
  assert (Hndc : NoDup (nth i P [])).
  { apply (NoDup_concat_cell P); [eapply Permutation_NoDup; [apply Permutation_sym; exact Hc|auto]|apply nth_In; exact Hi]. }
  pose proof (rest_perm v _ Hndc Hv) as Hr.
  assert (Hrne : rest v (nth i P []) <> []).
  { intro E. rewrite E in Hr. apply Permutation_length in Hr. simpl in Hr. lia. }
  split; [exact HP|]. split; [reflexivity|]. split; [|split; [exact Hrne|exact Hr]].
  unfold individualise. destruct (rest v (nth i P [])); [congruence|reflexivity].
Qed.

Lemma individualise_props nodes P i v :
  NoDup nodes -> vpart nodes P -> first_big P = Some i -> In v (nth i P []) ->
  vpart nodes (individualise P i v) /\ length (individualise P i v) = Datatypes.S (length P).
Proof.
  intros Hnd HP Hfb Hv. destruct (individualise_split nodes P i v Hnd HP Hfb Hv) as (hd & c & tl & rr & E & _ & -> & Hrr & Hr).
  destruct HP as [Hc Hne]. subst P. split; [split|].
  - eapply perm_trans; [|exact Hc]. rewrite !concat_app. apply Permutation_app_head. cbn [concat].
    rewrite app_assoc. exact (Permutation_app_tail (concat tl) Hr).
  - apply Forall_app in Hne. destruct Hne as [H1 H2]. inversion H2 as [|? ? Hcne Htl].
    apply Forall_app. split; auto. constructor; [discriminate|]. constructor; [exact Hrr|exact Htl].
  - repeat (rewrite app_length || cbn [length]). lia.
Qed.

Lemma individualise_single P i v x : first_big P = Some i -> In [x] P -> In [x] (individualise P i v).
Proof.
  intros Hfb Hx. destruct (first_big_spec P i Hfb) as [Hi Hbig].
  rewrite (split_nth P i [] Hi) in Hx. unfold individualise.
  apply in_app_or in Hx. destruct Hx as [Hx|[Hx|Hx]].
  - apply in_or_app. left. auto.
  - rewrite Hx in Hbig. simpl in Hbig. lia.
  - rewrite !in_app_iff. right. right. right. exact Hx.
Qed.
Lemma individualise_new P i v : In [v] (individualise P i v).
Proof. unfold individualise. apply in_or_app. right. left. auto. Qed.

(* ---------------- leaves of lib/IRCore: shape and fuel ---------------- *)
Lemma vpart_length nodes P : vpart nodes P -> length P <= length nodes.
Proof.
  intros [Hc Hn]. rewrite <- (Permutation_length Hc). clear Hc.
  induction Hn as [|c P Hc HP IH]; simpl; auto. rewrite app_length.
  destruct c; [congruence|]. simpl. lia.
Qed.

Lemma vpart_cell_in nodes P i v : vpart nodes P -> In v (nth i P []) -> In v nodes.
Proof.
  intros [Hc _] Hv. apply (Permutation_in _ Hc). apply in_concat. exists (nth i P []). split; auto.
  destruct (Nat.lt_ge_cases i (length P)); [apply nth_In; auto|]. rewrite nth_overflow in Hv by auto. contradiction.
Qed.

Section LeafProps.
Variable S : Type.
Variable sleb : S -> S -> bool.
Hypothesis sleb_total : forall a b, sleb a b = true \/ sleb b a = true.
Hypothesis sleb_trans : forall a b c, sleb a b = true -> sleb b c = true -> sleb a c = true.
Hypothesis sleb_antisym : forall a b, sleb a b = true -> sleb b a = true -> a = b.
Variable sig : partition -> N -> S.
Variable rf : nat.
Variable nodes : list N.
Hypothesis nodes_nd : NoDup nodes.

(** Every leaf below [P] is [pre], the individualised nodes, and a permutation [r] of the nodes.  A property [Q P r] that
    holds of the flattened refinement at a discrete end and is inherited from an individualised refinement holds of
    every such tail. *)
Section Tail.
Variable Q : partition -> list N -> Prop.
Hypothesis Q_leaf : forall P, vpart nodes P -> first_big (refine sleb sig rf P) = None -> Q P (concat (refine sleb sig rf P)).
Hypothesis Q_step : forall P i v r, vpart nodes (refine sleb sig rf P) -> first_big (refine sleb sig rf P) = Some i ->
  In v (nth i (refine sleb sig rf P) []) -> Q (individualise (refine sleb sig rf P) i v) r -> Q P r.

Theorem leaves_tail fuel : forall P pre p, vpart nodes P -> In p (leaves sleb sig rf fuel P pre) ->
  exists ext r, p = (pre ++ ext) ++ r /\ Permutation r nodes /\ incl ext nodes /\ Q P r.
Proof.
  induction fuel as [|f IH]; intros P pre p HP Hin; simpl in Hin; [contradiction|].
  pose proof (refine_vpart S sleb sleb_total sleb_trans sleb_antisym sig nodes rf P HP) as HP'.
  destruct (first_big (refine sleb sig rf P)) as [i|] eqn:Efb.
  - apply in_flat_map in Hin. destruct Hin as (v & Hv & Hin).
    destruct (individualise_props nodes _ i v nodes_nd HP' Efb Hv) as [HPi _].
    destruct (IH _ _ _ HPi Hin) as (ext & r & -> & Hr & Hi & Hq). exists (v :: ext), r.
    split; [rewrite <- (app_assoc pre [v] ext); reflexivity|]. split; [exact Hr|]. split; [|exact (Q_step P i v r HP' Efb Hv Hq)].
    intros x [<-|Hx]; [eapply vpart_cell_in; [exact HP'|exact Hv]|apply Hi; auto].
  - destruct Hin as [<-|[]]. exists [], (concat (refine sleb sig rf P)). split; [rewrite app_nil_r; auto|].
    split; [apply (proj1 HP')|]. split; [intros x []|apply Q_leaf; assumption].
Qed.
End Tail.

Theorem leaves_shape fuel P pre p : vpart nodes P ->
  In p (leaves sleb sig rf fuel P pre) -> exists ext r, p = (pre ++ ext) ++ r /\ Permutation r nodes /\ incl ext nodes.
Proof.
  intros HP Hin. destruct (leaves_tail (fun _ _ => True) (fun _ _ _ => I) (fun _ _ _ _ _ _ _ _ => I) fuel P pre p HP Hin)
    as (ext & r & E & Hr & Hi & _). eauto.
Qed.

Theorem leaves_nonempty fuel : forall P pre, vpart nodes P -> length nodes < fuel + length P ->
  leaves sleb sig rf fuel P pre <> [].
Proof.
  induction fuel as [|f IH]; intros P pre HP Hlen.
  - pose proof (vpart_length nodes P HP). simpl in Hlen. lia.
  - simpl.
    pose proof (refine_vpart S sleb sleb_total sleb_trans sleb_antisym sig nodes rf P HP) as HP'.
    pose proof (refine_length S sleb sig rf P) as Hl.
    destruct (first_big (refine sleb sig rf P)) as [i|] eqn:Efb; [|discriminate].
    destruct (first_big_spec _ _ Efb) as [Hi Hbig].
    destruct (nth i (refine sleb sig rf P) []) as [|v l] eqn:Ec; [simpl in Hbig; lia|].
    simpl. intro E. apply app_eq_nil in E. destruct E as [E _]. revert E.
    assert (Hv : In v (nth i (refine sleb sig rf P) [])) by (rewrite Ec; left; auto).
    destruct (individualise_props nodes _ i v nodes_nd HP' Efb Hv) as [HPi Hli].
    apply IH; auto. rewrite Hli. lia.
Qed.
End LeafProps.

(* ---------------- a partition-independent part of the signature is constant along every leaf position ---------------- *)
Section KeySeq.
Variable S : Type.
Variable sleb : S -> S -> bool.
Hypothesis sleb_total : forall a b, sleb a b = true \/ sleb b a = true.
Hypothesis sleb_trans : forall a b c, sleb a b = true -> sleb b c = true -> sleb a c = true.
Hypothesis sleb_antisym : forall a b, sleb a b = true -> sleb b a = true -> a = b.
Variable sig : partition -> N -> S.
Variable K : Type.
Variable key : N -> K.
Hypothesis sig_key : forall P v w, sig P v = sig P w -> key v = key w.
Variable nodes : list N.
Hypothesis nodes_nd : NoDup nodes.

Definition hom (c : cell) : Prop := forall v w, In v c -> In w c -> key v = key w.
Definition homP (P : partition) : Prop := Forall hom P.
Definition kseq (P : partition) : list K := map key (concat P).

Lemma hom_repeat c x : (forall y, In y c -> key y = key x) -> map key c = repeat (key x) (length c).
Proof. induction c as [|y c IH]; simpl; intros H; auto. rewrite H by auto. f_equal. apply IH. auto. Qed.
Lemma hom_perm_map c c' : hom c -> Permutation c c' -> map key c' = map key c.
Proof.
  intros Hh Hp. destruct c as [|x c].
  - apply Permutation_nil in Hp. subst. auto.
  - rewrite (hom_repeat (x :: c) x) by (intros y Hy; apply Hh; simpl; auto).
    rewrite (hom_repeat c' x).
    + rewrite (Permutation_length Hp). reflexivity.
    + intros y Hy. apply Hh; [|left; auto]. eapply Permutation_in; [apply Permutation_sym; exact Hp|auto].
Qed.
Lemma hom_incl c c' : hom c -> incl c' c -> hom c'.
Proof. intros H Hi v w Hv Hw. apply H; apply Hi; auto. Qed.

Lemma split_cell_hom P c : Forall hom (split_cell sleb sig P c).
Proof.
  unfold split_cell. destruct (length c <=? 1) eqn:E1.
  - constructor; auto. apply Nat.leb_le in E1. intros v w Hv Hw.
    destruct c as [|a [|b c]]; simpl in *; try lia; try contradiction. destruct Hv as [<-|[]], Hw as [<-|[]]. auto.
  - destruct (length (keys sleb sig P c) <=? 1) eqn:E2.
    + constructor; auto. apply Nat.leb_le in E2. intros v w Hv Hw. apply (sig_key P).
      assert (Iv : In (sig P v) (keys sleb sig P c)) by (apply sort_dedup_in; auto; apply in_map; auto).
      assert (Iw : In (sig P w) (keys sleb sig P c)) by (apply sort_dedup_in; auto; apply in_map; auto).
      destruct (keys sleb sig P c) as [|a [|b l]]; simpl in *; try lia; try contradiction.
      destruct Iv as [<-|[]], Iw as [<-|[]]. auto.
    + apply Forall_forall. intros d Hd. apply in_map_iff in Hd. destruct Hd as (s & <- & _).
      intros v w Hv Hw. unfold group in *. apply filter_In in Hv, Hw. destruct Hv as [_ Hv], Hw as [_ Hw].
      apply (eqb_eq sleb sleb_total sleb_antisym) in Hv, Hw. apply (sig_key P). congruence.
Qed.
Lemma refine_step_hom P : homP (refine_step sleb sig P).
Proof.
  unfold refine_step, homP. generalize P at 1 as Q. intros Q. induction P as [|c P IH]; simpl; [constructor|].
  apply Forall_app. split; auto. apply split_cell_hom.
Qed.
Lemma refine_step_kseq P : homP P -> kseq (refine_step sleb sig P) = kseq P.
Proof.
  unfold refine_step, kseq. generalize P at 2 as Q. intros Q. induction 1 as [|c P Hc HP IH]; simpl; auto.
  rewrite concat_app, !map_app. f_equal; auto.
  apply hom_perm_map; auto. apply Permutation_sym. apply (split_cell_perm S sleb sleb_total sleb_trans sleb_antisym).
Qed.
Lemma refine_hom fuel : forall P, homP P -> homP (refine sleb sig fuel P).
Proof. induction fuel as [|f IH]; intros P HP; simpl; auto. destruct (_ =? _); [apply refine_step_hom|apply IH, refine_step_hom]. Qed.
Lemma refine_hom1 fuel P : homP (refine sleb sig (Datatypes.S fuel) P).
Proof. simpl. destruct (_ =? _); [apply refine_step_hom|apply refine_hom, refine_step_hom]. Qed.
Lemma refine_kseq fuel : forall P, homP P -> kseq (refine sleb sig fuel P) = kseq P.
Proof.
  induction fuel as [|f IH]; intros P HP; simpl; auto.
  destruct (_ =? _); [apply refine_step_kseq; auto|]. rewrite IH; [apply refine_step_kseq; auto|apply refine_step_hom].
Qed.

Lemma individualise_hom_kseq P i v : vpart nodes P -> homP P -> first_big P = Some i -> In v (nth i P []) ->
  homP (individualise P i v) /\ kseq (individualise P i v) = kseq P.
Proof.
  intros HP Hh Hfb Hv.
  destruct (individualise_split nodes P i v nodes_nd HP Hfb Hv) as (hd & c & tl & rr & E & _ & -> & Hrr & Hr). subst P.
  unfold homP in *. apply Forall_app in Hh. destruct Hh as [Hh1 Hh2].
  pose proof (Forall_inv Hh2) as Hhc. pose proof (Forall_inv_tail Hh2) as Hh3. unfold kseq. split.
  - apply Forall_app. split; auto. constructor.
    + intros a b [<-|[]] [<-|[]]. auto.
    + constructor; auto. apply (hom_incl c); auto. intros x Hx. apply (Permutation_in _ Hr). right. exact Hx.
  - rewrite !concat_app, !map_app. f_equal. cbn [concat]. rewrite app_assoc, !map_app. f_equal.
    rewrite <- map_app. apply hom_perm_map; auto. apply Permutation_sym. exact Hr.
Qed.
End KeySeq.

Theorem leaves_kseq_top S sleb (sleb_total : forall a b, sleb a b = true \/ sleb b a = true)
  (sleb_trans : forall a b c, sleb a b = true -> sleb b c = true -> sleb a c = true)
  (sleb_antisym : forall a b, sleb a b = true -> sleb b a = true -> a = b)
  (sig : partition -> N -> S) K (key : N -> K) (sig_key : forall P v w, sig P v = sig P w -> key v = key w)
  nodes (nodes_nd : NoDup nodes) rf fuel P pre p : vpart nodes P ->
  In p (leaves sleb sig (Datatypes.S rf) fuel P pre) ->
  exists ext r, p = (pre ++ ext) ++ r /\ Permutation r nodes /\
                map key r = kseq K key (refine sleb sig (Datatypes.S rf) P) /\ incl ext nodes.
Proof.
  intros HP Hin.
  destruct (leaves_tail S sleb sleb_total sleb_trans sleb_antisym sig (Datatypes.S rf) nodes nodes_nd
              (fun P r => map key r = kseq K key (refine sleb sig (Datatypes.S rf) P))) with (3 := HP) (4 := Hin)
    as (ext & r & E & Hr & Hi & Hk); [reflexivity| |exists ext, r; auto].
  (* a refinement with fuel is homogeneous; individualising and refining again keep the key sequence *)
  intros Q i v r HQ Efb Hv ->.
  pose proof (refine_hom1 S sleb sleb_total sleb_antisym sig K key sig_key rf Q) as Hh.
  destruct (individualise_hom_kseq K key nodes nodes_nd _ i v HQ Hh Efb Hv) as [Hhi Hki].
  rewrite <- Hki. apply (refine_kseq S sleb sleb_total sleb_trans sleb_antisym sig K key sig_key); exact Hhi.
Qed.
