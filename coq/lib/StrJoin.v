(* Strings as lists of code points; join with a one-character separator is injective on separator-free
   pieces. Stdlib only. *)
From Coq Require Import List NArith Lia.
Import ListNotations.
Set Implicit Arguments.

Definition str := list N.

Fixpoint join (sep : N) (xs : list str) : str :=
  match xs with
  | [] => []
  | [x] => x
  | x :: xs' => x ++ sep :: join sep xs'
  end.

Definition nosep (sep : N) (x : str) : Prop := ~ In sep x.

(* split at the first separator *)
Fixpoint split1 (sep : N) (s : str) : str * option str :=
  match s with
  | [] => ([], None)
  | c :: s' => if N.eqb c sep then ([], Some s')
               else let '(a, r) := split1 sep s' in (c :: a, r)
  end.

Lemma split1_app sep x rest : nosep sep x -> split1 sep (x ++ sep :: rest) = (x, Some rest).
Proof.
  induction x as [|c x IH]; simpl; intros H.
  - rewrite N.eqb_refl. reflexivity.
  - destruct (N.eqb_spec c sep) as [->|Hne]; [exfalso; apply H; left; reflexivity|].
    rewrite IH; auto. intro I. apply H. right. exact I.
Qed.
Lemma split1_nosep sep x : nosep sep x -> split1 sep x = (x, None).
Proof.
  induction x as [|c x IH]; simpl; intros H; auto.
  destruct (N.eqb_spec c sep) as [->|Hne]; [exfalso; apply H; left; reflexivity|].
  rewrite IH; auto. intro I. apply H. right. exact I.
Qed.

Lemma split1_join sep x xs : nosep sep x ->
  split1 sep (join sep (x :: xs)) = (x, match xs with [] => None | _ => Some (join sep xs) end).
Proof. intros H. destruct xs; [apply split1_nosep, H|apply split1_app, H]. Qed.

Theorem join_inj sep : forall xs ys, Forall (nosep sep) xs -> Forall (nosep sep) ys ->
  xs <> [] -> ys <> [] -> join sep xs = join sep ys -> xs = ys.
Proof.
  induction xs as [|x xs IH]; intros ys Hx Hy Nx Ny E; [congruence|].
  destruct ys as [|y ys]; [congruence|].
  inversion Hx as [|? ? Hx1 Hx2]; subst. inversion Hy as [|? ? Hy1 Hy2]; subst.
  pose proof (f_equal (split1 sep) E) as E'. rewrite !split1_join in E' by assumption.
  destruct xs, ys; inversion E'; subst; [reflexivity|].
  f_equal. apply IH; auto; discriminate.
Qed.

(* the matching parser: split_all is a left inverse of join on separator-free, non-empty lists *)
Fixpoint split_all (fuel : nat) (sep : N) (s : str) : list str :=
  match fuel with
  | 0 => [s]
  | S f => match split1 sep s with
           | (a, None) => [a]
           | (a, Some r) => a :: split_all f sep r
           end
  end.
Lemma split_all_join sep : forall xs, Forall (nosep sep) xs -> xs <> [] ->
  forall fuel, length (join sep xs) <= fuel -> split_all fuel sep (join sep xs) = xs.
Proof.
  induction xs as [|x xs IH]; intros Hx Nx fuel Hf; [congruence|].
  inversion Hx as [|? ? Hx1 Hx2]; subst.
  destruct xs as [|x2 xs].
  - simpl. destruct fuel; simpl; [reflexivity|].
    rewrite (split1_nosep Hx1). reflexivity.
  - change (join sep (x :: x2 :: xs)) with (x ++ sep :: join sep (x2 :: xs)) in *.
    destruct fuel as [|f]; [rewrite app_length in Hf; cbn [length] in Hf; lia|].
    simpl. rewrite (split1_app _ Hx1). f_equal. apply IH; auto; [discriminate|].
    rewrite app_length in Hf. cbn [length] in Hf. lia.
Qed.
Print Assumptions join_inj.
Print Assumptions split_all_join.
