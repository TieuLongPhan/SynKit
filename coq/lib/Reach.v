(* Reachability closure by saturation with fuel; the result, when the saturation test succeeds, is exactly the
   set of nodes connected to a seed; fuel |nodes| always suffices. *)
From Coq Require Import List Arith NArith Lia.
From SK Require Import lib.LGraph.
Import ListNotations.
Set Implicit Arguments.

Section Reach.
Variable nodes : list N.
Variable nbr : N -> list N.                       (* successors / neighbours *)
Hypothesis nbr_in : forall u v, In v (nbr u) -> In v nodes.

Definition mem (x : N) (l : list N) : bool := existsb (N.eqb x) l.
Lemma mem_spec x l : mem x l = true <-> In x l.
Proof. exact (LGraph.mem_spec x l). Qed.

(* add the elements of l that are not yet in S (keeps S duplicate-free) *)
Fixpoint add_all (l S : list N) : list N :=
  match l with
  | [] => S
  | x :: l' => if mem x S then add_all l' S else add_all l' (x :: S)
  end.
Lemma add_all_in l : forall S y, In y (add_all l S) <-> In y l \/ In y S.
Proof.
  induction l as [|x l IH]; intros S y; simpl; [tauto|].
  destruct (mem x S) eqn:E; rewrite IH; simpl.
  - apply mem_spec in E. split; [intros [H|H]; auto|intros [[<-|H]|H]; auto].
  - split; [intros [H|[<-|H]]; auto|intros [[<-|H]|H]; auto].
Qed.
Lemma add_all_nodup l : forall S, NoDup S -> NoDup (add_all l S).
Proof.
  induction l as [|x l IH]; intros S H; simpl; auto.
  destruct (mem x S) eqn:E; auto. apply IH. constructor; auto.
  intro I. apply mem_spec in I. congruence.
Qed.
Lemma add_all_length l : forall S, length S <= length (add_all l S).
Proof.
  induction l as [|x l IH]; intros S; simpl; auto.
  destruct (mem x S); auto. specialize (IH (x :: S)). simpl in IH. lia.
Qed.

Definition step (S : list N) : list N := add_all (flat_map nbr S) S.

Fixpoint saturate (fuel : nat) (S : list N) : option (list N) :=
  match fuel with
  | 0 => None
  | Datatypes.S f => let S' := step S in if length S' =? length S then Some S else saturate f S'
  end.

Inductive conn (seeds : list N) : N -> Prop :=
| conn_seed x : In x seeds -> conn seeds x
| conn_step u v : conn seeds u -> In v (nbr u) -> conn seeds v.

Lemma step_in S y : In y (step S) <-> In y S \/ exists u, In u S /\ In y (nbr u).
Proof.
  unfold step. rewrite add_all_in, in_flat_map. tauto.
Qed.

(* equal length + inclusion + NoDup => no new element *)
Lemma add_all_same_length l : forall S, length (add_all l S) = length S -> forall y, In y l -> In y S.
Proof.
  induction l as [|x l IH]; intros S H y I; [destruct I|].
  simpl in H. destruct (mem x S) eqn:E.
  - destruct I as [<-|I]; [apply mem_spec; auto | eauto].
  - exfalso. pose proof (add_all_length l (x :: S)) as L. simpl in L. lia.
Qed.

Theorem saturate_spec seeds fuel : forall S R,
  (forall x, In x S -> conn seeds x) -> (forall x, In x seeds -> In x S) ->
  saturate fuel S = Some R -> forall x, In x R <-> conn seeds x.
Proof.
  induction fuel as [|f IH]; intros S R Hs Hseed E x; [discriminate|].
  simpl in E. destruct (length (step S) =? length S) eqn:L.
  - inversion E; subst R. apply Nat.eqb_eq in L. split; auto.
    induction 1 as [y I|u v Hu IHu I]; auto.
    apply (add_all_same_length _ _ L). apply in_flat_map. exists u. auto.
  - eapply IH; [| |exact E].
    + intros y I. apply step_in in I. destruct I as [I|(u & Iu & Iy)]; auto. eapply conn_step; eauto.
    + intros y I. apply step_in. auto.
Qed.

(* fuel: a duplicate-free subset of [nodes] grows at every unsuccessful round *)
Lemma NoDup_incl_len (l l' : list N) : NoDup l -> incl l l' -> length l <= length l'.
Proof. apply NoDup_incl_length. Qed.

Lemma step_nodup S : NoDup S -> NoDup (step S).
Proof. apply add_all_nodup. Qed.
Lemma step_incl S : incl S nodes -> incl (step S) nodes.
Proof.
  intros H y I. apply step_in in I. destruct I as [I|(u & _ & Iy)]; auto. eapply nbr_in; eauto.
Qed.

Theorem saturate_fuel : forall fuel S, NoDup S -> incl S nodes ->
  length nodes - length S < fuel -> saturate fuel S <> None.
Proof.
  induction fuel as [|f IH]; intros S Hn Hi Hf; [lia|].
  simpl. destruct (length (step S) =? length S) eqn:L; [discriminate|].
  apply Nat.eqb_neq in L. apply IH.
  - apply step_nodup; auto.
  - apply step_incl; auto.
  - pose proof (add_all_length (flat_map nbr S) S) as G. fold (step S) in G.
    pose proof (NoDup_incl_len (step_nodup Hn) (step_incl Hi)). lia.
Qed.
End Reach.
Print Assumptions saturate_spec.
Print Assumptions saturate_fuel.
