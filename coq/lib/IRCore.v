(* Refinement and the leaf enumeration of an individualisation-refinement search are equivariant under an
   injective relabelling, modulo the order inside cells and the order in which children are visited.  Stdlib only. *)
From Coq Require Import List Arith NArith Permutation.
From SK Require Import lib.IRSortKeys.
Import ListNotations.
Set Implicit Arguments.

Definition cell := list N.
Definition partition := list cell.

(* ---------------- one IR system ---------------- *)
Section Sys.
Variable S : Type.
Variable leb : S -> S -> bool.
Variable sig : partition -> N -> S.

Definition keys (P : partition) (c : cell) : list S := sort_dedup leb (map (sig P) c).
Definition group (P : partition) (c : cell) (s : S) : cell := filter (fun v => eqb leb (sig P v) s) c.
Definition split_cell (P : partition) (c : cell) : list cell :=
  if length c <=? 1 then [c]
  else let ks := keys P c in if length ks <=? 1 then [c] else map (group P c) ks.
Definition refine_step (P : partition) : partition := flat_map (split_cell P) P.
Fixpoint refine (fuel : nat) (P : partition) : partition :=
  match fuel with
  | 0 => P
  | Datatypes.S f => let P1 := refine_step P in if length P1 =? length P then P1 else refine f P1
  end.

Fixpoint first_big (P : partition) : option nat :=
  match P with
  | [] => None
  | c :: P' => if 1 <? length c then Some 0 else option_map Datatypes.S (first_big P')
  end.
Definition rest (v : N) (c : cell) : cell := filter (fun x => negb (N.eqb x v)) c.
Definition individualise (P : partition) (i : nat) (v : N) : partition :=
  firstn i P ++ [[v]] ++ (match rest v (nth i P []) with [] => [] | r => [r] end) ++ skipn (Datatypes.S i) P.

Variable rfuel : nat.
Fixpoint leaves (fuel : nat) (P : partition) (pre : list N) : list (list N) :=
  match fuel with
  | 0 => []
  | Datatypes.S f =>
      let P' := refine rfuel P in
      match first_big P' with
      | None => [pre ++ concat P']
      | Some i => flat_map (fun v => leaves f (individualise P' i v) (pre ++ [v])) (nth i P' [])
      end
  end.
End Sys.

(* ---------------- two systems related by an injective relabelling ---------------- *)
Section Equivariance.
Variable S : Type.
Variable leb : S -> S -> bool.
Hypothesis leb_total : forall a b, leb a b = true \/ leb b a = true.
Hypothesis leb_trans : forall a b c, leb a b = true -> leb b c = true -> leb a c = true.
Hypothesis leb_antisym : forall a b, leb a b = true -> leb b a = true -> a = b.
Variable pi : N -> N.
Hypothesis pi_inj : forall x y, pi x = pi y -> x = y.
Variables sig1 sig2 : partition -> N -> S.

Definition cellR (c c' : cell) : Prop := Permutation (map pi c) c'.
Definition partR : partition -> partition -> Prop := Forall2 cellR.

Hypothesis sig_rel : forall P P' v, partR P P' -> sig2 P' (pi v) = sig1 P v.

(* generic list facts *)
Lemma Permutation_filter (X : Type) (f : X -> bool) l l' : Permutation l l' -> Permutation (filter f l) (filter f l').
Proof.
  induction 1; simpl; auto.
  - destruct (f x); auto.
  - destruct (f x), (f y); auto. apply perm_swap.
  - eapply perm_trans; eauto.
Qed.
Lemma map_filter_comm (X Y : Type) (g : X -> Y) (f : X -> bool) (f' : Y -> bool) l :
  (forall x, In x l -> f' (g x) = f x) -> map g (filter f l) = filter f' (map g l).
Proof.
  induction l as [|x l IH]; simpl; intros H; auto.
  rewrite (H x) by auto. destruct (f x); simpl; rewrite IH; auto.
Qed.
Lemma Forall2_flat_map (X X' Y Y' : Type) (R : X -> X' -> Prop) (Q : Y -> Y' -> Prop) f f' l l' :
  Forall2 R l l' -> (forall x x', R x x' -> Forall2 Q (f x) (f' x')) -> Forall2 Q (flat_map f l) (flat_map f' l').
Proof. induction 1; simpl; intros H'; auto. apply Forall2_app; auto. Qed.
Lemma Forall2_map_same (X Y Y' : Type) (Q : Y -> Y' -> Prop) (f : X -> Y) (f' : X -> Y') l :
  (forall x, In x l -> Q (f x) (f' x)) -> Forall2 Q (map f l) (map f' l).
Proof. induction l; simpl; intros H; constructor; auto. Qed.
Lemma Forall2_firstn (X Y : Type) (R : X -> Y -> Prop) n l l' : Forall2 R l l' -> Forall2 R (firstn n l) (firstn n l').
Proof. intros H. revert n. induction H; intros [|n]; simpl; auto. Qed.
Lemma Forall2_skipn (X Y : Type) (R : X -> Y -> Prop) n l l' : Forall2 R l l' -> Forall2 R (skipn n l) (skipn n l').
Proof. intros H. revert n. induction H; intros [|n]; simpl; auto. Qed.
Lemma Forall2_nth (X Y : Type) (R : X -> Y -> Prop) dx dy n l l' : Forall2 R l l' -> R dx dy -> R (nth n l dx) (nth n l' dy).
Proof. intros H Hd. revert n. induction H; intros [|n]; simpl; auto. Qed.

Lemma cellR_length c c' : cellR c c' -> length c' = length c.
Proof. intros H. apply Permutation_length in H. rewrite map_length in H. auto. Qed.

Lemma keys_rel P P' c c' : partR P P' -> cellR c c' -> keys leb sig2 P' c' = keys leb sig1 P c.
Proof.
  intros HP Hc. unfold keys. apply sort_dedup_ext; auto.
  intros s. rewrite !in_map_iff. split.
  - intros (v' & E & I). apply (Permutation_in _ (Permutation_sym Hc)) in I.
    apply in_map_iff in I. destruct I as (v & <- & I). exists v. split; auto. rewrite <- E. symmetry. apply sig_rel; auto.
  - intros (v & E & I). exists (pi v). split; [rewrite <- E; apply sig_rel; auto|].
    apply (Permutation_in _ Hc). apply in_map. auto.
Qed.

Lemma group_rel P P' c c' s : partR P P' -> cellR c c' -> cellR (group leb sig1 P c s) (group leb sig2 P' c' s).
Proof.
  intros HP Hc. unfold cellR, group.
  rewrite (@map_filter_comm _ _ pi _ (fun v' => eqb leb (sig2 P' v') s)).
  - apply Permutation_filter. exact Hc.
  - intros x _. rewrite (sig_rel x HP). reflexivity.
Qed.

Lemma split_rel P P' c c' : partR P P' -> cellR c c' -> partR (split_cell leb sig1 P c) (split_cell leb sig2 P' c').
Proof.
  intros HP Hc. unfold split_cell. rewrite (cellR_length Hc).
  destruct (length c <=? 1); [constructor; auto; constructor|].
  rewrite (keys_rel HP Hc).
  destruct (length (keys leb sig1 P c) <=? 1); [constructor; auto; constructor|].
  apply Forall2_map_same. intros s _. apply group_rel; auto.
Qed.

Lemma refine_step_rel P P' : partR P P' -> partR (refine_step leb sig1 P) (refine_step leb sig2 P').
Proof. intros HP. unfold refine_step. eapply Forall2_flat_map; [exact HP|]. intros c c' Hc. apply split_rel; auto. Qed.

Lemma partR_length P P' : partR P P' -> length P' = length P.
Proof. induction 1; simpl; auto. Qed.

Lemma refine_rel fuel : forall P P', partR P P' -> partR (refine leb sig1 fuel P) (refine leb sig2 fuel P').
Proof.
  induction fuel as [|f IH]; intros P P' HP; simpl; auto.
  pose proof (refine_step_rel HP) as H1.
  rewrite (partR_length H1), (partR_length HP).
  destruct (_ =? _); auto.
Qed.

Lemma first_big_rel P P' : partR P P' -> first_big P' = first_big P.
Proof.
  induction 1 as [|c c' P P' Hc HP IH]; simpl; auto.
  rewrite (cellR_length Hc), IH. reflexivity.
Qed.

Lemma pi_eqb x y : N.eqb (pi x) (pi y) = N.eqb x y.
Proof.
  destruct (N.eqb_spec x y) as [->|H]; [apply N.eqb_refl|].
  apply N.eqb_neq. intro E. apply H. apply pi_inj. exact E.
Qed.

Lemma rest_rel v c c' : cellR c c' -> cellR (rest v c) (rest (pi v) c').
Proof.
  intros Hc. unfold cellR, rest.
  rewrite (@map_filter_comm _ _ pi _ (fun x' => negb (N.eqb x' (pi v)))).
  - apply Permutation_filter. exact Hc.
  - intros x _. f_equal. apply pi_eqb.
Qed.

Lemma individualise_rel P P' i v : partR P P' -> partR (individualise P i v) (individualise P' i (pi v)).
Proof.
  intros HP. unfold individualise.
  apply Forall2_app; [apply Forall2_firstn; auto|].
  apply Forall2_app; [constructor; [unfold cellR; simpl; auto|constructor]|].
  apply Forall2_app; [|apply Forall2_skipn; auto].
  assert (Hr : cellR (rest v (nth i P [])) (rest (pi v) (nth i P' []))).
  { apply rest_rel. apply Forall2_nth; auto. unfold cellR. simpl. auto. }
  pose proof (cellR_length Hr) as Hl.
  destruct (rest v (nth i P [])), (rest (pi v) (nth i P' [])); simpl in Hl; try discriminate; constructor; auto.
Qed.

Lemma discrete_concat P P' : partR P P' -> first_big P = None -> concat P' = map pi (concat P).
Proof.
  induction 1 as [|c c' P P' Hc HP IH]; simpl; auto.
  destruct (1 <? length c) eqn:E; [discriminate|]. intros Hn.
  destruct (first_big P) eqn:E'; [discriminate|]. rewrite map_app, IH by auto. f_equal.
  apply Nat.ltb_ge in E. unfold cellR in Hc.
  destruct c as [|x [|y c]]; simpl in *.
  - apply Permutation_nil in Hc. auto.
  - apply Permutation_length_1_inv in Hc. auto.
  - apply le_S_n in E. inversion E.
Qed.

Lemma flat_map_perm_pointwise (X Y : Type) (f g : X -> list Y) l :
  (forall x, In x l -> Permutation (f x) (g x)) -> Permutation (flat_map f l) (flat_map g l).
Proof. induction l; simpl; intros H; auto. apply Permutation_app; auto. Qed.
Lemma map_flat_map (X Y Z : Type) (h : Y -> Z) (f : X -> list Y) l : map h (flat_map f l) = flat_map (fun x => map h (f x)) l.
Proof. induction l; simpl; auto. rewrite map_app. f_equal; auto. Qed.
Lemma flat_map_map (X Y Z : Type) (g : X -> Y) (f : Y -> list Z) l : flat_map f (map g l) = flat_map (fun x => f (g x)) l.
Proof. induction l; simpl; auto. f_equal; auto. Qed.

Variable rfuel : nat.

Theorem leaves_rel fuel : forall P P' pre, partR P P' ->
  Permutation (map (map pi) (leaves leb sig1 rfuel fuel P pre)) (leaves leb sig2 rfuel fuel P' (map pi pre)).
Proof.
  induction fuel as [|f IH]; intros P P' pre HP; simpl; auto.
  pose proof (refine_rel rfuel HP) as HR.
  rewrite (first_big_rel HR).
  destruct (first_big (refine leb sig1 rfuel P)) as [i|] eqn:Efb.
  - rewrite map_flat_map.
    set (F' := fun v' => leaves leb sig2 rfuel f (individualise (refine leb sig2 rfuel P') i v') (map pi pre ++ [v'])).
    apply perm_trans with (flat_map (fun v => F' (pi v)) (nth i (refine leb sig1 rfuel P) [])).
    + apply flat_map_perm_pointwise. intros v _. unfold F'.
      pose proof (IH _ _ (pre ++ [v]) (individualise_rel i v HR)) as H. rewrite map_app in H. exact H.
    + rewrite <- (flat_map_map pi F'). apply Permutation_flat_map.
      apply (@Forall2_nth _ _ cellR [] [] i _ _ HR). unfold cellR. simpl. auto.
  - simpl. rewrite map_app, (discrete_concat HR Efb). auto.
Qed.
End Equivariance.

Print Assumptions leaves_rel.
