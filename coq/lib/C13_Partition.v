(** Generic theory of first-representative clustering (used by C13).

    [R rep x] is the decidable test "x belongs to the class represented by rep".  Every clustering
    routine of SynKit compares a new item only with ONE stored member of each existing class.
    - [leaders l]        : the items of [l] that found no related earlier leader, in order;
    - [index_of L x]     : position of the first leader related to [x];
    - [classify T x]     : incremental step against templates [T : list (X * Z)] (class numbers are
                           arbitrary integers; a fresh class is max+1, or 0 when there is none);
    - [classify_list]    : left-to-right iteration of [classify].
    Main results, for R an equivalence on the domain [D]:
      [class_of_partition]      two items of the list share a class  <->  they are R-related;
      [class_of_order_indep]    the partition does not depend on the list order (Permutation);
      [n_classes_order_indep]   nor does the number of classes;
      [classify_spec]           an item goes to the class of its related representative, else max+1;
      [classify_list_partition] after any run from coherent templates, classes agree  <->  R;
      [classify_represented]    an item represented by a template gets the class of a new item  <->  the two are R-related;
      [classify_list_app]       processing in batches = processing in one go;
      [classify_list_nil]       starting from no templates the class NUMBERS are [index_of (leaders l)].
    Stdlib only. *)
From Coq Require Import List Bool ZArith Lia Permutation.
Import ListNotations.

Lemma NoDup_map_inj_in (A B : Type) (f : A -> B) (l : list A) :
  (forall a b, In a l -> In b l -> f a = f b -> a = b) -> NoDup l -> NoDup (map f l).
Proof.
  induction l as [|x r IH]; simpl; intros Hinj Hnd; [constructor|].
  inversion Hnd as [|? ? Hx Hr]; subst. constructor.
  - intros I. apply in_map_iff in I. destruct I as (y & E & Iy).
    assert (y = x) by (apply Hinj; auto). subst. contradiction.
  - apply IH; auto.
Qed.

Section Partition.
Variable X : Type.
Variable R : X -> X -> bool.

Definition related_in (L : list X) (x : X) : bool := existsb (fun y => R y x) L.

Fixpoint leaders_from (acc l : list X) : list X :=
  match l with
  | [] => acc
  | x :: r => if related_in acc x then leaders_from acc r else leaders_from (acc ++ [x]) r
  end.
Definition leaders (l : list X) : list X := leaders_from [] l.

Fixpoint index_of (L : list X) (x : X) : option nat :=
  match L with
  | [] => None
  | y :: r => if R y x then Some O else option_map S (index_of r x)
  end.

Definition class_of (l : list X) (x : X) : option nat := index_of (leaders l) x.

Definition template := (X * Z)%type.
Definition max_class (T : list template) : Z := fold_right Z.max (-1)%Z (map snd T).

Definition classify (T : list template) (x : X) : Z * list template :=
  match find (fun t => R (fst t) x) T with
  | Some t => (snd t, T)
  | None => let c := (max_class T + 1)%Z in (c, T ++ [(x, c)])
  end.

Fixpoint classify_list (T : list template) (l : list X) : list Z * list template :=
  match l with
  | [] => ([], T)
  | x :: r =>
      let '(c, T1) := classify T x in
      let '(cs, T2) := classify_list T1 r in
      (c :: cs, T2)
  end.

Definition templates_of (L : list X) : list template :=
  combine L (map Z.of_nat (seq 0 (length L))).

Lemma related_in_spec L x : related_in L x = true <-> exists y, In y L /\ R y x = true.
Proof. unfold related_in. apply existsb_exists. Qed.

Lemma related_in_app L L' x : related_in (L ++ L') x = related_in L x || related_in L' x.
Proof. apply existsb_app. Qed.

Lemma related_in_false L x : related_in L x = false <-> forall y, In y L -> R y x = false.
Proof.
  rewrite <- not_true_iff_false, related_in_spec. split.
  - intros H y Hy. apply not_true_is_false. intros E. apply H. now exists y.
  - intros H (y & Hy & E). now rewrite (H y Hy) in E.
Qed.

Lemma index_of_related L x : related_in L x = if index_of L x then true else false.
Proof.
  induction L as [|y r IH]; simpl; [reflexivity|]. destruct (R y x); simpl; [reflexivity|].
  rewrite IH. now destruct (index_of r x).
Qed.

Lemma index_of_some L x : related_in L x = true <-> exists n, index_of L x = Some n.
Proof.
  rewrite index_of_related. destruct (index_of L x) as [n|]; split; intros H;
    [now exists n|reflexivity|discriminate|now destruct H].
Qed.

Lemma index_of_none L x : related_in L x = false <-> index_of L x = None.
Proof. rewrite index_of_related. destruct (index_of L x); split; congruence. Qed.

Lemma index_of_nth L x n d : index_of L x = Some n ->
  n < length L /\ R (nth n L d) x = true /\ forall m, m < n -> R (nth m L d) x = false.
Proof.
  revert n. induction L as [|y r IH]; simpl; intros n H; [discriminate|].
  destruct (R y x) eqn:E.
  - inversion H; subst. split; [lia|]. split; [exact E|]. intros m Hm. lia.
  - destruct (index_of r x) as [k|]; simpl in H; [|discriminate]. inversion H; subst.
    destruct (IH k eq_refl) as (H1 & H2 & H3). split; [lia|]. split; [exact H2|].
    intros [|m] Hm; [exact E|]. apply H3. lia.
Qed.

Lemma index_of_app L L' x :
  index_of (L ++ L') x =
  match index_of L x with Some n => Some n | None => option_map (fun k => length L + k) (index_of L' x) end.
Proof.
  induction L as [|y r IH]; simpl; [now destruct (index_of L' x)|].
  destruct (R y x); [reflexivity|]. rewrite IH.
  destruct (index_of r x); [reflexivity|]. now destruct (index_of L' x).
Qed.

Lemma index_of_snoc L y x :
  index_of (L ++ [y]) x =
  match index_of L x with Some n => Some n | None => if R y x then Some (length L) else None end.
Proof.
  rewrite index_of_app. destruct (index_of L x); [reflexivity|]. simpl.
  destruct (R y x); simpl; [now rewrite Nat.add_0_r|reflexivity].
Qed.

Lemma leaders_from_prefix acc l : exists L', leaders_from acc l = acc ++ L'.
Proof.
  revert acc. induction l as [|x r IH]; intros acc; simpl.
  - exists []. now rewrite app_nil_r.
  - destruct (related_in acc x).
    + apply IH.
    + destruct (IH (acc ++ [x])) as (L' & E). exists (x :: L'). rewrite E, <- app_assoc. reflexivity.
Qed.

Lemma index_of_leaders_from acc l x n : index_of acc x = Some n -> index_of (leaders_from acc l) x = Some n.
Proof. intros H. destruct (leaders_from_prefix acc l) as (L' & ->). now rewrite index_of_app, H. Qed.

Lemma leaders_from_app acc l1 l2 : leaders_from acc (l1 ++ l2) = leaders_from (leaders_from acc l1) l2.
Proof.
  revert acc. induction l1 as [|x r IH]; intros acc; simpl; [reflexivity|].
  destruct (related_in acc x); apply IH.
Qed.

(** every item of the list (and of the accumulator) has a related leader, provided R is reflexive on it *)
Lemma leaders_from_covers acc l x :
  (In x l -> R x x = true) ->
  (related_in acc x = true \/ In x l) -> related_in (leaders_from acc l) x = true.
Proof.
  revert acc. induction l as [|y r IH]; intros acc Hrefl H; simpl.
  - destruct H as [H|[]]. exact H.
  - destruct (related_in acc y) eqn:Ey; (apply IH; [intros; apply Hrefl; now right|]).
    + destruct H as [H|[<-|H]]; auto.
    + rewrite related_in_app. destruct H as [H|[<-|H]]; [left; now rewrite H| |now right].
      left. simpl. rewrite Hrefl by now left. now rewrite orb_true_r.
Qed.

Lemma leaders_from_incl acc l y : In y (leaders_from acc l) -> In y acc \/ In y l.
Proof.
  revert acc. induction l as [|x r IH]; intros acc H; simpl in *; [now left|].
  destruct (related_in acc x).
  - destruct (IH _ H); auto.
  - destruct (IH _ H) as [H'|H']; auto. apply in_app_or in H'. destruct H' as [H'|[<-|[]]]; auto.
Qed.

(** leaders are pairwise unrelated in list order: no leader is related to a LATER leader *)
Definition separated (L : list X) : Prop :=
  forall L1 y L2, L = L1 ++ y :: L2 -> related_in L1 y = false.

Lemma separated_snoc L x : separated L -> related_in L x = false -> separated (L ++ [x]).
Proof.
  intros HL Hx L1 y L2 E.
  destruct L2 as [|z L2'] using rev_ind.
  - apply app_inj_tail in E. destruct E as [-> ->]. exact Hx.
  - clear IHL2'. rewrite app_comm_cons, app_assoc in E. apply app_inj_tail in E. destruct E as [E _].
    eapply HL. exact E.
Qed.

Lemma leaders_from_separated acc l : separated acc -> separated (leaders_from acc l).
Proof.
  revert acc. induction l as [|x r IH]; intros acc H; simpl; [exact H|].
  destruct (related_in acc x) eqn:E; apply IH; [exact H|]. apply separated_snoc; assumption.
Qed.

Lemma leaders_separated l : separated (leaders l).
Proof. apply leaders_from_separated. intros L1 y L2 E. destruct L1; discriminate. Qed.

Variable D : X -> Prop.
Hypothesis R_refl : forall x, D x -> R x x = true.
Hypothesis R_sym : forall x y, D x -> D y -> R x y = true -> R y x = true.
Hypothesis R_trans : forall x y z, D x -> D y -> D z -> R x y = true -> R y z = true -> R x z = true.

Lemma R_sym_eq x y : D x -> D y -> R x y = R y x.
Proof.
  intros Dx Dy. destruct (R x y) eqn:E, (R y x) eqn:E'; try reflexivity.
  - now rewrite (R_sym x y) in E'.
  - now rewrite (R_sym y x) in E.
Qed.

Lemma R_cong x y z : D x -> D y -> D z -> R x y = true -> R x z = R y z.
Proof.
  intros Dx Dy Dz E. destruct (R y z) eqn:Eyz; [now apply (R_trans x y z)|].
  destruct (R x z) eqn:Exz; [|reflexivity].
  rewrite <- Eyz. symmetry. apply (R_trans y x z); auto.
Qed.

(** in a separated list of domain elements at most one leader is related to a given item *)
Lemma separated_unique L x n m d :
  Forall D L -> D x -> separated L -> n < length L -> m < length L ->
  R (nth n L d) x = true -> R (nth m L d) x = true -> n = m.
Proof.
  intros HD Dx Hs Hn Hm En Em. rewrite Forall_forall in HD.
  assert (Hlt : forall a b, a < b -> b < length L -> R (nth a L d) x = true -> R (nth b L d) x = true -> False).
  { intros a b Hab Hb Ea Eb.
    destruct (nth_split L d Hb) as (L1 & L2 & EL & Hlen).
    pose proof (Hs _ _ _ EL) as Hf. rewrite related_in_false in Hf.
    assert (Da : D (nth a L d)) by (apply HD, nth_In; lia).
    assert (Db : D (nth b L d)) by (apply HD, nth_In; lia).
    assert (Ia : In (nth a L d) L1) by (rewrite EL, app_nth1 by lia; apply nth_In; lia).
    apply Hf in Ia. rewrite (R_cong _ _ _ Da Dx Db Ea), (R_sym_eq _ _ Dx Db), Eb in Ia. discriminate. }
  destruct (Nat.lt_trichotomy n m) as [H|[H|H]]; [exfalso; eauto|exact H|exfalso; eauto].
Qed.

Theorem class_of_total l x : Forall D l -> In x l -> exists c, class_of l x = Some c /\ c < length (leaders l).
Proof.
  intros HD Hx. unfold class_of.
  assert (H : related_in (leaders l) x = true).
  { apply leaders_from_covers; [|now right]. intros _. apply R_refl. rewrite Forall_forall in HD. auto. }
  apply index_of_some in H. destruct H as (c & H). exists c. split; [exact H|].
  eapply index_of_nth in H. apply H. Unshelve. exact x.
Qed.

Lemma leaders_domain l : Forall D l -> Forall D (leaders l).
Proof.
  intros HD. apply Forall_forall. intros y Hy. apply leaders_from_incl in Hy. destruct Hy as [[]|Hy].
  rewrite Forall_forall in HD. auto.
Qed.

Theorem class_of_partition l x y : Forall D l -> In x l -> In y l ->
  (class_of l x = class_of l y <-> R x y = true).
Proof.
  intros HD Hx Hy.
  pose proof (leaders_domain l HD) as HDL. pose proof (leaders_separated l) as Hs.
  destruct (class_of_total l x HD Hx) as (c & Ec & Hc). destruct (class_of_total l y HD Hy) as (c' & Ec' & Hc').
  rewrite Ec, Ec'. unfold class_of in *.
  destruct (index_of_nth _ _ _ x Ec) as (_ & Rc & _). destruct (index_of_nth _ _ _ x Ec') as (_ & Rc' & _).
  rewrite Forall_forall in HD, HDL.
  assert (Dc : D (nth c (leaders l) x)) by (apply HDL, nth_In; lia).
  (* x and the leader of its class are related to the same items *)
  rewrite <- (R_cong _ x y Dc (HD x Hx) (HD y Hy) Rc).
  split.
  - intros E. inversion E; subst c'. exact Rc'.
  - intros E. f_equal. apply (separated_unique (leaders l) y c c' x); auto. now apply Forall_forall.
Qed.

(** the partition is independent of the list order *)
Theorem class_of_order_indep l l' x y : Permutation l l' -> Forall D l -> In x l -> In y l ->
  (class_of l x = class_of l y <-> class_of l' x = class_of l' y).
Proof.
  intros P HD Hx Hy.
  assert (HD' : Forall D l') by (eapply Permutation_Forall; eauto).
  rewrite (class_of_partition l x y HD Hx Hy).
  rewrite (class_of_partition l' x y HD' (Permutation_in _ P Hx) (Permutation_in _ P Hy)). reflexivity.
Qed.

(** ... and so is the number of classes.  Each leader of [l] is related to exactly one leader of [l'];
    this map is injective because leaders are pairwise unrelated. *)
Lemma separated_inj_length (L L' : list X) :
  Forall D L -> Forall D L' -> separated L ->
  (forall y, In y L -> related_in L' y = true) -> length L <= length L'.
Proof.
  intros HDL HDL' Hs Hcov.
  (* f n := index in L' of the leader related to (nth n L) *)
  destruct L as [|d0 L0]; [simpl; lia|]. remember (d0 :: L0) as L eqn:EL.
  set (f := fun n => match index_of L' (nth n L d0) with Some k => k | None => 0 end).
  assert (Hf : forall n, n < length L -> f n < length L' /\ R (nth (f n) L' d0) (nth n L d0) = true).
  { intros n Hn. unfold f. assert (Hr := Hcov _ (nth_In L d0 Hn)).
    apply index_of_some in Hr. destruct Hr as (k & Hk). rewrite Hk.
    destruct (index_of_nth _ _ _ d0 Hk) as (H1 & H2 & _). split; assumption. }
  assert (Hinj : forall n m, n < length L -> m < length L -> f n = f m -> n = m).
  { intros n m Hn Hm E. destruct (Hf n Hn) as (Hfn & Rn). destruct (Hf m Hm) as (Hfm & Rm). rewrite E in Rn.
    pose proof HDL as HDL0. rewrite Forall_forall in HDL, HDL'.
    assert (Dn : D (nth n L d0)) by (apply HDL, nth_In; lia).
    assert (Dm : D (nth m L d0)) by (apply HDL, nth_In; lia).
    assert (Dk : D (nth (f m) L' d0)) by (apply HDL', nth_In; lia).
    (* nth n L ~ nth m L, so they are the same position of the separated list L *)
    apply (separated_unique L (nth m L d0) n m d0); auto.
    now rewrite <- (R_cong _ _ _ Dk Dn Dm Rn). }
  (* pigeonhole: an injective map from [0, |L|) into [0, |L'|) *)
  assert (Hnd : NoDup (map f (seq 0 (length L)))).
  { apply NoDup_map_inj_in.
    - intros a b Ha Hb E. apply in_seq in Ha, Hb. apply Hinj; lia || exact E.
    - apply seq_NoDup. }
  assert (Hincl : incl (map f (seq 0 (length L))) (seq 0 (length L'))).
  { intros k Hk. apply in_map_iff in Hk. destruct Hk as (n & <- & Hn). apply in_seq in Hn.
    apply in_seq. destruct (Hf n) as (H1 & _); lia. }
  pose proof (NoDup_incl_length Hnd Hincl) as Hlen. rewrite map_length, !seq_length in Hlen. exact Hlen.
Qed.

Theorem n_classes_order_indep l l' : Permutation l l' -> Forall D l ->
  length (leaders l) = length (leaders l').
Proof.
  intros P HD.
  assert (HD' : Forall D l') by (eapply Permutation_Forall; eauto).
  assert (Hcov : forall a b, Permutation a b -> Forall D a -> forall y, In y (leaders a) -> related_in (leaders b) y = true).
  { intros a b Pab HDa y Hy. apply leaders_from_incl in Hy. destruct Hy as [[]|Hy].
    apply leaders_from_covers; [|right; eapply Permutation_in; eauto].
    intros _. apply R_refl. rewrite Forall_forall in HDa. auto. }
  apply Nat.le_antisymm.
  - apply separated_inj_length; auto using leaders_domain, leaders_separated. eapply Hcov; eauto.
  - apply separated_inj_length; auto using leaders_domain, leaders_separated.
    eapply Hcov; eauto. now apply Permutation_sym.
Qed.

(** templates are coherent when "same class" and "related representatives" coincide *)
Definition coherent (T : list template) : Prop :=
  Forall D (map fst T) /\
  forall t t', In t T -> In t' T -> (R (fst t) (fst t') = true <-> snd t = snd t').

Lemma coherent_class T t0 t x : coherent T -> D x -> In t0 T -> In t T -> R (fst t0) x = true ->
  (snd t0 = snd t <-> R (fst t) x = true).
Proof.
  intros (HDT & Hco) Dx I0 It R0. rewrite Forall_forall in HDT.
  assert (D0 : D (fst t0)) by (apply HDT, in_map, I0). assert (Dt : D (fst t)) by (apply HDT, in_map, It).
  now rewrite <- (Hco t0 t I0 It), (R_cong _ _ _ D0 Dx Dt R0), (R_sym_eq _ _ Dx Dt).
Qed.

Lemma max_class_ge T t : In t T -> (snd t <= max_class T)%Z.
Proof.
  unfold max_class. induction T as [|u r IH]; simpl; [intros []|].
  intros [->|H]; [lia|]. specialize (IH H). lia.
Qed.

Lemma max_class_lower T : (-1 <= max_class T)%Z.
Proof. unfold max_class. induction T; simpl; lia. Qed.

Theorem classify_spec T x : coherent T -> D x ->
  let '(c, T') := classify T x in
  coherent T' /\
  (exists L', T' = T ++ L') /\
  (exists t, In t T' /\ R (fst t) x = true /\ snd t = c) /\
  (forall t, In t T -> R (fst t) x = true -> c = snd t /\ T' = T) /\
  ((forall t, In t T -> R (fst t) x = false) ->
     c = (max_class T + 1)%Z /\ ~ In c (map snd T) /\ T' = T ++ [(x, c)]).
Proof.
  intros HT Dx. pose proof HT as (HDT & Hco). unfold classify. rewrite Forall_forall in HDT.
  assert (HDt : forall t, In t T -> D (fst t)) by (intros t It; apply HDT, in_map, It).
  destruct (find (fun t => R (fst t) x) T) as [t0|] eqn:Ef.
  - apply find_some in Ef. destruct Ef as (I0 & R0).
    split; [exact HT|]. split; [exists []; now rewrite app_nil_r|].
    split; [exists t0; auto|]. split.
    + intros t It Rt. split; [|reflexivity]. now apply (coherent_class T t0 t x).
    + intros Hall. rewrite (Hall t0 I0) in R0. discriminate.
  - pose proof (find_none _ _ Ef) as Hnone. simpl in Hnone. set (c := (max_class T + 1)%Z).
    assert (Hfresh : forall t, In t T -> snd t <> c).
    { intros t It. pose proof (max_class_ge _ _ It). unfold c. lia. }
    split.
    { split.
      - rewrite map_app. apply Forall_app. split; [now apply Forall_forall|]. constructor; [exact Dx|constructor].
      - (* an old template is unrelated to x and carries an old number *)
        intros t t' It It'. apply in_app_or in It, It'.
        destruct It as [It|[<-|[]]]; destruct It' as [It'|[<-|[]]]; simpl.
        + apply Hco; assumption.
        + rewrite (Hnone t It). split; [discriminate|]. intros E. now apply Hfresh in It.
        + rewrite (R_sym_eq _ _ Dx (HDt _ It')), (Hnone t' It'). split; [discriminate|]. intros E. symmetry in E. now apply Hfresh in It'.
        + rewrite (R_refl _ Dx). split; reflexivity. }
    split; [eexists; reflexivity|].
    split; [exists (x, c); split; [apply in_or_app; right; now left|split; [apply R_refl; exact Dx|reflexivity]]|].
    split.
    + intros t It Rt. rewrite (Hnone t It) in Rt. discriminate.
    + intros _. split; [reflexivity|]. split; [|reflexivity].
      intros I. apply in_map_iff in I. destruct I as (t & E & It). now apply Hfresh in It.
Qed.

(** the incremental clause: an item represented by a template gets the class of a new item iff the two are related *)
Lemma classify_represented T t x y : coherent T -> D x -> D y -> In t T -> R (fst t) x = true ->
  (snd t = fst (classify T y) <-> R x y = true).
Proof.
  intros HT Dx Dy It Rt. pose proof (classify_spec T y HT Dy) as H. destruct (classify T y) as [c T'].
  destruct H as (HT' & (L' & ->) & (t1 & It1 & Rt1 & <-) & _). simpl.
  assert (It' : In t (T ++ L')) by (apply in_or_app; now left).
  assert (Dt1 : D (fst t1)) by (destruct HT' as (H & _); rewrite Forall_forall in H; apply H, in_map, It1).
  now rewrite (coherent_class _ t t1 x HT' Dx It' It1 Rt), (R_cong _ _ _ Dt1 Dy Dx Rt1), (R_sym_eq _ _ Dy Dx).
Qed.

Lemma classify_list_app T l1 l2 :
  classify_list T (l1 ++ l2) =
  let '(c1, T1) := classify_list T l1 in
  let '(c2, T2) := classify_list T1 l2 in (c1 ++ c2, T2).
Proof.
  revert T. induction l1 as [|x r IH]; intros T; simpl.
  - destruct (classify_list T l2); reflexivity.
  - destruct (classify T x) as [c T1]. rewrite IH.
    destruct (classify_list T1 r) as [c1 T1']. destruct (classify_list T1' l2). reflexivity.
Qed.

Lemma classify_list_length T l : length (fst (classify_list T l)) = length l.
Proof.
  revert T. induction l as [|x r IH]; intros T; simpl; [reflexivity|].
  destruct (classify T x) as [c T1]. specialize (IH T1). destruct (classify_list T1 r). simpl in *. now rewrite IH.
Qed.

Lemma classify_cases T x : snd (classify T x) = T \/ snd (classify T x) = T ++ [(x, fst (classify T x))].
Proof. unfold classify. destruct (find (fun t => R (fst t) x) T); simpl; auto. Qed.

Lemma classify_list_from l : forall T cs T', classify_list T l = (cs, T') ->
  forall t, In t T' -> In t T \/ exists i, nth_error l i = Some (fst t) /\ nth_error cs i = Some (snd t).
Proof.
  induction l as [|x r IH]; intros T cs T' E t It; simpl in E.
  - injection E as <- <-. now left.
  - pose proof (classify_cases T x) as Hc. destruct (classify T x) as [c T1].
    destruct (classify_list T1 r) as [cs2 T2] eqn:Er. injection E as <- <-.
    destruct (IH _ _ _ Er t It) as [I1|(i & H1 & H2)]; [|right; now exists (S i)].
    simpl in Hc. destruct Hc as [->| ->]; [now left|].
    apply in_app_or in I1. destruct I1 as [I1|[<-|[]]]; [now left|right; now exists 0].
Qed.

(** invariant of a run: templates stay coherent, grow by appending, and every processed item carries the
    class of a related representative present in the final templates *)
Lemma classify_list_inv T l : coherent T -> Forall D l ->
  let '(cs, T') := classify_list T l in
  coherent T' /\ (exists L', T' = T ++ L') /\
  forall i x, nth_error l i = Some x -> exists t, In t T' /\ R (fst t) x = true /\ nth_error cs i = Some (snd t).
Proof.
  revert T. induction l as [|x r IH]; intros T HT HD; simpl.
  - split; [exact HT|]. split; [exists []; now rewrite app_nil_r|]. intros [|i] y Hy; discriminate.
  - inversion HD as [|? ? Dx HDr]; subst.
    pose proof (classify_spec T x HT Dx) as Hs. destruct (classify T x) as [c T1].
    destruct Hs as (HT1 & (L1 & E1) & (t & It & Rt & Et) & _ & _).
    specialize (IH T1 HT1 HDr). destruct (classify_list T1 r) as [cs T2].
    destruct IH as (HT2 & (L2 & E2) & Hrep).
    split; [exact HT2|]. split; [exists (L1 ++ L2); subst; now rewrite app_assoc|].
    intros [|i] y Hy; simpl in *; [|now apply Hrep]. injection Hy as <-.
    exists t. subst T2 c. split; [apply in_or_app; now left|auto].
Qed.

Theorem classify_list_partition T l cs T' : coherent T -> Forall D l -> classify_list T l = (cs, T') ->
  coherent T' /\ (exists L', T' = T ++ L') /\ length cs = length l /\
  (forall i j x y c c', nth_error l i = Some x -> nth_error l j = Some y ->
      nth_error cs i = Some c -> nth_error cs j = Some c' -> (c = c' <-> R x y = true)) /\
  (forall i x c t, nth_error l i = Some x -> nth_error cs i = Some c -> In t T' ->
      (c = snd t <-> R (fst t) x = true)).
Proof.
  intros HT HD E. pose proof (classify_list_inv T l HT HD) as H. rewrite E in H.
  destruct H as (HT' & Hext & Hrep). split; [exact HT'|]. split; [exact Hext|].
  split; [now rewrite <- (classify_list_length T l), E|].
  rewrite Forall_forall in HD.
  assert (HDn : forall i x, nth_error l i = Some x -> D x) by (intros i x Hx; eapply HD, nth_error_In, Hx).
  split.
  - intros i j x y c c' Hx Hy Hc Hc'.
    destruct (Hrep _ _ Hx) as (t & It & Rt & Et). destruct (Hrep _ _ Hy) as (t' & It' & Rt' & Et').
    rewrite Hc in Et. rewrite Hc' in Et'. injection Et as ->. injection Et' as ->.
    assert (Dt' : D (fst t')) by (destruct HT' as (H & _); rewrite Forall_forall in H; apply H, in_map, It').
    now rewrite (coherent_class _ t t' x HT' (HDn _ _ Hx) It It' Rt), (R_cong _ _ _ Dt' (HDn _ _ Hy) (HDn _ _ Hx) Rt'),
      (R_sym_eq _ _ (HDn _ _ Hy) (HDn _ _ Hx)).
  - intros i x c t Hx Hc It. destruct (Hrep _ _ Hx) as (t0 & It0 & Rt0 & Et0). rewrite Hc in Et0. injection Et0 as ->.
    exact (coherent_class _ t0 t x HT' (HDn _ _ Hx) It0 It Rt0).
Qed.

End Partition.

Arguments related_in {X}. Arguments leaders_from {X}. Arguments leaders {X}. Arguments index_of {X}.
Arguments class_of {X}. Arguments max_class {X}. Arguments classify {X}. Arguments classify_list {X}.
Arguments templates_of {X}. Arguments separated {X}. Arguments coherent {X}.

Section FromNil.
Variable X : Type.
Variable R : X -> X -> bool.

Lemma max_class_templates_of (L : list X) : max_class (templates_of L) = (Z.of_nat (length L) - 1)%Z.
Proof.
  unfold templates_of, max_class.
  assert (H : forall (L : list X) s, fold_right Z.max (-1)%Z (map snd (combine L (map Z.of_nat (seq s (length L)))))
                        = if Nat.eqb (length L) 0 then (-1)%Z else (Z.of_nat (s + length L) - 1)%Z).
  { induction L0 as [|x r IH]; intros s; simpl; [reflexivity|].
    rewrite IH. destruct (Nat.eqb (length r) 0) eqn:E.
    - apply Nat.eqb_eq in E. rewrite E. lia.
    - lia. }
  rewrite H. destruct L; simpl; lia.
Qed.

Lemma combine_app2 (A B : Type) (l1 l2 : list A) (m1 m2 : list B) :
  length l1 = length m1 -> combine (l1 ++ l2) (m1 ++ m2) = combine l1 m1 ++ combine l2 m2.
Proof.
  revert m1. induction l1 as [|a r IH]; intros [|b m1] H; simpl in *; try discriminate; [reflexivity|].
  rewrite IH by lia. reflexivity.
Qed.

Lemma templates_of_snoc (L : list X) x :
  templates_of (L ++ [x]) = templates_of L ++ [(x, Z.of_nat (length L))].
Proof.
  unfold templates_of. rewrite app_length. simpl. rewrite Nat.add_1_r, seq_S, map_app. simpl.
  rewrite combine_app2 by (rewrite map_length, seq_length; reflexivity). reflexivity.
Qed.

Lemma find_templates_of (L : list X) x s :
  find (fun t : template X => R (fst t) x) (combine L (map Z.of_nat (seq s (length L)))) =
  match index_of R L x with
  | Some n => Some (nth n L x, Z.of_nat (s + n))
  | None => None
  end.
Proof.
  revert s. induction L as [|y r IH]; intros s; simpl; [reflexivity|].
  destruct (R y x); [now rewrite Nat.add_0_r|].
  rewrite IH. destruct (index_of R r x); simpl; [|reflexivity]. now rewrite Nat.add_succ_r.
Qed.

Lemma classify_templates_of (L : list X) x :
  classify R (templates_of L) x =
  match index_of R L x with
  | Some n => (Z.of_nat n, templates_of L)
  | None => (Z.of_nat (length L), templates_of (L ++ [x]))
  end.
Proof.
  unfold classify. unfold templates_of at 1. rewrite find_templates_of.
  destruct (index_of R L x); simpl; [reflexivity|].
  rewrite max_class_templates_of, templates_of_snoc. f_equal; [lia|]. do 3 f_equal. lia.
Qed.

(** starting from the leader list [L], the run numbers classes by position in the growing leader list *)
Definition class_num (o : option nat) : Z := match o with Some n => Z.of_nat n | None => (-1)%Z end.

Theorem classify_list_templates_of (L l : list X) : (forall x, In x l -> R x x = true) ->
  classify_list R (templates_of L) l =
  (map (fun x => class_num (index_of R (leaders_from R L l) x)) l, templates_of (leaders_from R L l)).
Proof.
  revert L. induction l as [|x r IH]; intros L Hrefl; simpl; [reflexivity|].
  rewrite classify_templates_of, (index_of_related X R).
  destruct (index_of R L x) as [n|] eqn:E; rewrite IH by (intros; apply Hrefl; now right); do 2 f_equal.
  - now rewrite (index_of_leaders_from X R _ _ _ _ E).
  - rewrite (index_of_leaders_from X R _ r x (length L)); [reflexivity|].
    now rewrite (index_of_snoc X R), E, (Hrefl x) by now left.
Qed.

Corollary classify_list_nil (l : list X) : (forall x, In x l -> R x x = true) ->
  classify_list R [] l = (map (fun x => class_num (class_of R l x)) l, templates_of (leaders R l)).
Proof. intros H. exact (classify_list_templates_of [] l H). Qed.

End FromNil.
