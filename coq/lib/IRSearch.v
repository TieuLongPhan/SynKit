(* The accumulator search with branch pruning computes exactly fold_left visit over the unpruned leaf
   enumeration of IRCore, and the best label it returns is the minimum label. *)
From Coq Require Import List NArith Permutation.
From SK Require Import lib.IRSortKeys lib.IRCore.
Import ListNotations.
Set Implicit Arguments.

Section Search.
Variable S : Type.
Variable sleb : S -> S -> bool.
Variable sig : partition -> N -> S.
Variable rfuel : nat.

Variable L : Type.
Variable leb : L -> L -> bool.
Hypothesis leb_total : forall a b, leb a b = true \/ leb b a = true.
Hypothesis leb_trans : forall a b c, leb a b = true -> leb b c = true -> leb a c = true.
Hypothesis leb_antisym : forall a b, leb a b = true -> leb b a = true -> a = b.
Variable label : list N -> L.
Variable partial : list N -> L.

Notation ltb := (ltb leb).
Notation leqb := (eqb leb).

Definition acc := (option (L * list N) * list (list N))%type.

Definition visit (a : acc) (p : list N) : acc :=
  match fst a with
  | None => (Some (label p, p), [p])
  | Some (bl, bp) =>
      if ltb (label p) bl then (Some (label p, p), [p])
      else if leqb (label p) bl then (fst a, snd a ++ [p])
      else a
  end.

Definition pruned (a : acc) (pre : list N) : bool :=
  match fst a with Some (bl, _) => ltb bl (partial pre) | None => false end.

Fixpoint search (fuel : nat) (P : partition) (pre : list N) (a : acc) : acc :=
  match fuel with
  | 0 => a
  | Datatypes.S f =>
      let P' := refine sleb sig rfuel P in
      match first_big P' with
      | None => visit a (pre ++ concat P')
      | Some i => fold_left (fun a v => if pruned a (pre ++ [v]) then a
                                        else search f (individualise P' i v) (pre ++ [v]) a)
                            (nth i P' []) a
      end
  end.

(* the lower bound that justifies pruning: every leaf below a prefix has a label >= the partial label *)
Hypothesis partial_lb : forall fuel P pre p, pre <> [] -> In p (leaves sleb sig rfuel fuel P pre) -> leb (partial pre) (label p) = true.

Lemma ltb_leb_trans a b c : ltb a b = true -> leb b c = true -> ltb a c = true.
Proof.
  rewrite !(ltb_spec leb leb_total leb_antisym). intros [H1 N1] H2. split; [exact (leb_trans H1 H2)|].
  intros ->. apply N1. apply leb_antisym; auto.
Qed.

Lemma visit_noop a bl bp p : fst a = Some (bl, bp) -> ltb bl (label p) = true -> visit a p = a.
Proof.
  intros E H. unfold visit. rewrite E, (ltb_asym leb _ _ H).
  assert (H2 : leqb (label p) bl = false).
  { destruct (leqb (label p) bl) eqn:E2; auto. apply (eqb_eq leb leb_total leb_antisym) in E2.
    apply (ltb_spec leb leb_total leb_antisym) in H. destruct H as [_ Hne]. congruence. }
  rewrite H2. reflexivity.
Qed.

Lemma fold_visit_noop l : forall a bl bp, fst a = Some (bl, bp) ->
  (forall p, In p l -> ltb bl (label p) = true) -> fold_left visit l a = a.
Proof.
  induction l as [|p l IH]; intros a bl bp E H; simpl; auto.
  rewrite (@visit_noop a bl bp p E) by (apply H; left; reflexivity). apply IH with (bl := bl) (bp := bp); [exact E|]. intros; apply H; right; auto.
Qed.

Lemma fold_left_flat_map (X Y A : Type) (g : A -> Y -> A) (F : X -> list Y) l :
  forall a, fold_left g (flat_map F l) a = fold_left (fun a x => fold_left g (F x) a) l a.
Proof. induction l as [|x l IH]; intros a; simpl; auto. rewrite fold_left_app. apply IH. Qed.

Lemma fold_left_ext_in (X A : Type) (g g' : A -> X -> A) l :
  (forall a x, In x l -> g a x = g' a x) -> forall a, fold_left g l a = fold_left g' l a.
Proof. induction l as [|x l IH]; intros H a; simpl; auto. rewrite H by (left; reflexivity). apply IH. intros; apply H; right; auto. Qed.

Theorem search_is_fold fuel : forall P pre a,
  search fuel P pre a = fold_left visit (leaves sleb sig rfuel fuel P pre) a.
Proof.
  induction fuel as [|f IH]; intros P pre a; simpl; auto.
  destruct (first_big (refine sleb sig rfuel P)) as [i|]; [|reflexivity].
  rewrite fold_left_flat_map. apply fold_left_ext_in. intros a' v _.
  destruct (pruned a' (pre ++ [v])) eqn:Ep; [|apply IH].
  unfold pruned in Ep. destruct (fst a') as [[bl bp]|] eqn:Ea; [|discriminate].
  symmetry. apply fold_visit_noop with (bl := bl) (bp := bp); [exact Ea|].
  intros p I. eapply ltb_leb_trans; [exact Ep|]. eapply partial_lb; [|exact I].
  destruct pre; discriminate.
Qed.

(* the best label after folding is the minimum *)
Definition best_label (a : acc) : option L := option_map fst (fst a).
Definition minl (o : option L) (x : L) : option L :=
  match o with None => Some x | Some b => if ltb x b then Some x else Some b end.

Lemma best_label_visit a p : best_label (visit a p) = minl (best_label a) (label p).
Proof.
  destruct a as [[[bl bp]|] au]; unfold visit, best_label, minl; simpl; auto.
  destruct (ltb (label p) bl); simpl; auto.
  destruct (leqb (label p) bl); simpl; auto.
Qed.
Lemma best_label_fold l : forall a, best_label (fold_left visit l a) = fold_left minl (map label l) (best_label a).
Proof. induction l as [|p l IH]; intros a; simpl; auto. rewrite IH, best_label_visit. reflexivity. Qed.

(* fold_left minl is invariant under permutation of the labels *)
Lemma minl_comm o x y : minl (minl o x) y = minl (minl o y) x.
Proof.
  pose proof (ltb_asym leb) as T.
  pose proof (ltb_neither leb leb_total leb_antisym) as Tot.
  pose proof (ltb_trans leb leb_total leb_trans leb_antisym) as Tr.
  unfold minl. destruct o as [b|].
  - destruct (ltb x b) eqn:Exb, (ltb y b) eqn:Eyb; simpl;
    try rewrite Exb; try rewrite Eyb; simpl;
    destruct (ltb y x) eqn:Eyx, (ltb x y) eqn:Exy; simpl; try rewrite Exb; try rewrite Eyb; auto;
    try (rewrite (T _ _ Eyx) in Exy; discriminate);
    try (f_equal; apply Tot; auto; fail);
    try (rewrite (Tr _ _ _ Eyx Exb) in Eyb; discriminate);
    try (rewrite (Tr _ _ _ Exy Eyb) in Exb; discriminate).
  - destruct (ltb y x) eqn:Eyx, (ltb x y) eqn:Exy; simpl; auto.
    + rewrite (T _ _ Eyx) in Exy. discriminate.
    + f_equal. apply Tot; auto.
Qed.
Lemma fold_minl_perm l l' : Permutation l l' -> forall o, fold_left minl l o = fold_left minl l' o.
Proof.
  induction 1; intros o; simpl; auto.
  - rewrite minl_comm. reflexivity.
  - rewrite IHPermutation1. apply IHPermutation2.
Qed.
End Search.
Print Assumptions search_is_fold.
Print Assumptions fold_minl_perm.
