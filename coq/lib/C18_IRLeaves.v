(** C18 — more generic facts about the leaf enumeration of lib/IRCore.v: leaves are pairwise distinct, and a leaf is
    determined by its tail (the flattened discrete partition), because the tail of every leaf below a partition
    permutes each cell in place and an individualised node comes first in its cell. *)
From Coq Require Import List NArith ZArith Bool Arith Lia Permutation.
From SK Require Import lib.IRSortKeys lib.IRCore lib.IRSearch lib.C18_IRValid.
Import ListNotations.

Definition cover (Q : partition) (r : list N) : Prop := exists Rs, r = concat Rs /\ Forall2 (@Permutation N) Q Rs.

Lemma cover_refl Q : cover Q (concat Q).
Proof. exists Q. split; auto. induction Q; constructor; auto. Qed.

Lemma Forall2_perm_concat (Q Rs : list (list N)) : Forall2 (@Permutation N) Q Rs -> Permutation (concat Q) (concat Rs).
Proof. induction 1; simpl; auto. apply Permutation_app; auto. Qed.
Lemma Forall2_perm_length (Q Rs : list (list N)) : Forall2 (@Permutation N) Q Rs -> length (concat Q) = length (concat Rs).
Proof. intros H. apply Permutation_length. apply Forall2_perm_concat. auto. Qed.

Lemma cover_flat_map (F : cell -> list cell) Q : (forall c, Permutation (concat (F c)) c) ->
  forall r, cover (flat_map F Q) r -> cover Q r.
Proof.
  intros HF. induction Q as [|c Q IH]; intros r (Rs & -> & H); simpl in H.
  - inversion H; subst. exists []. split; auto.
  - apply Forall2_app_inv_l in H. destruct H as (R1 & R2 & H1 & H2 & ->).
    destruct (IH (concat R2) (ex_intro _ R2 (conj eq_refl H2))) as (Rs2 & E2 & H2').
    exists (concat R1 :: Rs2). split.
    + simpl. rewrite concat_app, E2. reflexivity.
    + constructor; auto. eapply perm_trans; [apply Permutation_sym, HF|]. apply Forall2_perm_concat. auto.
Qed.

Section Leaves.
Variable S : Type.
Variable sleb : S -> S -> bool.
Hypothesis sleb_total : forall a b, sleb a b = true \/ sleb b a = true.
Hypothesis sleb_trans : forall a b c, sleb a b = true -> sleb b c = true -> sleb a c = true.
Hypothesis sleb_antisym : forall a b, sleb a b = true -> sleb b a = true -> a = b.
Variable sig : partition -> N -> S.
Variable rf : nat.
Variable nodes : list N.
Hypothesis nodes_nd : NoDup nodes.

Lemma cover_refine_step Q r : cover (refine_step sleb sig Q) r -> cover Q r.
Proof.
  unfold refine_step. apply cover_flat_map. intros c. apply (split_cell_perm S sleb sleb_total sleb_trans sleb_antisym).
Qed.
Lemma cover_refine fuel : forall Q r, cover (refine sleb sig fuel Q) r -> cover Q r.
Proof.
  induction fuel as [|f IH]; intros Q r H; simpl in H; auto.
  destruct (_ =? _); [apply cover_refine_step; auto|apply cover_refine_step, IH; auto].
Qed.

Lemma cover_individualise P i v r : vpart nodes P -> first_big P = Some i -> In v (nth i P []) ->
  cover (individualise P i v) r -> cover P r /\ nth (length (concat (firstn i P))) r 0%N = v.
Proof.
  intros HP Hfb Hv (Rs & -> & H).
  destruct (individualise_split nodes P i v nodes_nd HP Hfb Hv) as (hd & c & tl & rr & E & <- & Ei & Hrr & Hr).
  rewrite Ei in H. rewrite E.
  apply Forall2_app_inv_l in H. destruct H as (R1 & R2 & H1 & H2 & ->).
  inversion H2 as [|? rv ? R3 Hv' H3]; subst. inversion H3 as [|? rr' ? R4 Hrr' H4]; subst.
  apply Permutation_length_1_inv in Hv'. subst rv.
  split.
  - exists (R1 ++ (v :: rr') :: R4). split.
    + rewrite !concat_app. simpl. reflexivity.
    + apply Forall2_app; auto. constructor; auto.
      eapply perm_trans; [apply Permutation_sym; exact Hr|]. apply perm_skip. auto.
  - rewrite concat_app. rewrite (Forall2_perm_length _ _ H1). rewrite app_nth2 by lia. rewrite Nat.sub_diag. reflexivity.
Qed.

Theorem leaves_cover fuel P pre p : vpart nodes P -> In p (leaves sleb sig rf fuel P pre) ->
  exists ext r, p = (pre ++ ext) ++ r /\ Permutation r nodes /\ cover P r.
Proof.
  intros HP Hin.
  destruct (leaves_tail S sleb sleb_total sleb_trans sleb_antisym sig rf nodes nodes_nd cover) with (3 := HP) (4 := Hin)
    as (ext & r & E & Hr & _ & Hc); [| |eauto].
  - intros Q _ _. apply (cover_refine rf), cover_refl.
  - intros Q i v r HQ Efb Hv Hc. apply (cover_refine rf). exact (proj1 (cover_individualise _ i v r HQ Efb Hv Hc)).
Qed.

Lemma app_inv_length_r {A} (a a' b b' : list A) : length b = length b' -> a ++ b = a' ++ b' -> a = a' /\ b = b'.
Proof.
  intros Hl E. assert (Hla : length a = length a').
  { pose proof (f_equal (@length A) E) as El. rewrite !app_length in El. lia. }
  revert a' Hla E. induction a as [|x a IH]; intros [|x' a'] Hla E; simpl in *; try discriminate; auto.
  inversion E; subst. destruct (IH a' ltac:(lia) H1) as [-> ->]. auto.
Qed.

(** a leaf is determined by its tail *)
Theorem leaves_tail_inj fuel : forall P pre p q, vpart nodes P ->
  In p (leaves sleb sig rf fuel P pre) -> In q (leaves sleb sig rf fuel P pre) ->
  (exists e e' r, p = (pre ++ e) ++ r /\ q = (pre ++ e') ++ r /\ length r = length nodes) -> p = q.
Proof.
  induction fuel as [|f IH]; intros P pre p q HP Hp Hq Hsame; simpl in Hp, Hq; [contradiction|].
  pose proof (refine_vpart S sleb sleb_total sleb_trans sleb_antisym sig nodes rf P HP) as HP'.
  destruct (first_big (refine sleb sig rf P)) as [i|] eqn:Efb.
  - apply in_flat_map in Hp, Hq. destruct Hp as (v & Hv & Hp), Hq as (w & Hw & Hq).
    destruct (individualise_props nodes _ i v nodes_nd HP' Efb Hv) as [HPv _].
    destruct (individualise_props nodes _ i w nodes_nd HP' Efb Hw) as [HPw _].
    destruct (leaves_cover f _ _ _ HPv Hp) as (e1 & r1 & E1 & Hr1 & C1).
    destruct (leaves_cover f _ _ _ HPw Hq) as (e2 & r2 & E2 & Hr2 & C2).
    destruct Hsame as (e & e' & r & Ep & Eq & Hlr).
    assert (r1 = r).
    { rewrite Ep in E1. apply app_inv_length_r in E1; [symmetry; tauto|]. rewrite (Permutation_length Hr1). auto. }
    assert (r2 = r).
    { rewrite Eq in E2. apply app_inv_length_r in E2; [symmetry; tauto|]. rewrite (Permutation_length Hr2). auto. }
    subst r1 r2.
    destruct (cover_individualise _ i v r HP' Efb Hv C1) as [_ Nv].
    destruct (cover_individualise _ i w r HP' Efb Hw C2) as [_ Nw].
    assert (Evw : w = v) by congruence. clear Nv Nw. subst w.
    apply (IH _ _ p q HPv Hp Hq). exists e1, e2, r. auto.
  - destruct Hp as [<-|[]], Hq as [<-|[]]. reflexivity.
Qed.

(** leaves are pairwise distinct *)
Lemma leaves_prefix fuel : forall P pre p, In p (leaves sleb sig rf fuel P pre) -> exists t, p = pre ++ t.
Proof.
  induction fuel as [|f IH]; intros P pre p Hin; simpl in Hin; [contradiction|].
  destruct (first_big (refine sleb sig rf P)) as [i|].
  - apply in_flat_map in Hin. destruct Hin as (v & _ & Hin). destruct (IH _ _ _ Hin) as (t & ->).
    exists (v :: t). rewrite <- app_assoc. reflexivity.
  - destruct Hin as [<-|[]]. eauto.
Qed.

Lemma NoDup_flat_map_disj {A B} (F : A -> list B) l : NoDup l -> (forall x, In x l -> NoDup (F x)) ->
  (forall x y z, In x l -> In y l -> x <> y -> In z (F x) -> In z (F y) -> False) -> NoDup (flat_map F l).
Proof.
  induction 1 as [|x l Hx Hl IH]; simpl; intros H1 H2; [constructor|].
  apply NoDup_app_intro; auto.
  - apply IH; auto. intros a b z Ha Hb. apply H2; auto.
  - intros z Hz1 Hz2. apply in_flat_map in Hz2. destruct Hz2 as (y & Hy & Hz2).
    apply (H2 x y z); auto. intro; subst. auto.
Qed.

Theorem leaves_nodup fuel : forall P pre, vpart nodes P -> NoDup (leaves sleb sig rf fuel P pre).
Proof.
  induction fuel as [|f IH]; intros P pre HP; simpl; [constructor|].
  pose proof (refine_vpart S sleb sleb_total sleb_trans sleb_antisym sig nodes rf P HP) as HP'.
  destruct (first_big (refine sleb sig rf P)) as [i|] eqn:Efb; [|constructor; [intros []|constructor]].
  destruct (first_big_spec _ _ Efb) as [Hi _].
  apply NoDup_flat_map_disj.
  - apply (NoDup_concat_cell (refine sleb sig rf P)); [|apply nth_In; auto].
    eapply Permutation_NoDup; [apply Permutation_sym; apply (proj1 HP')|auto].
  - intros v Hv. apply IH. apply (individualise_props nodes _ i v nodes_nd HP' Efb Hv).
  - intros v w z Hv Hw Hne Hz1 Hz2.
    destruct (leaves_prefix _ _ _ _ Hz1) as (t1 & E1). destruct (leaves_prefix _ _ _ _ Hz2) as (t2 & E2).
    rewrite E1, <- !app_assoc in E2. apply app_inv_head in E2. simpl in E2. inversion E2. auto.
Qed.
End Leaves.
