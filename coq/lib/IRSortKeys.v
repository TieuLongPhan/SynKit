(* Sorted duplicate-free key lists are canonical: two lists with the same elements sort to the same list.
   Stdlib only. *)
From Coq Require Import List Bool.
Import ListNotations.
Set Implicit Arguments.

Section SortKeys.
Variable S : Type.
Variable leb : S -> S -> bool.
Hypothesis leb_total : forall a b, leb a b = true \/ leb b a = true.
Hypothesis leb_trans : forall a b c, leb a b = true -> leb b c = true -> leb a c = true.
Hypothesis leb_antisym : forall a b, leb a b = true -> leb b a = true -> a = b.

Definition eqb (a b : S) : bool := leb a b && leb b a.
Lemma eqb_eq a b : eqb a b = true <-> a = b.
Proof.
  unfold eqb. split.
  - intros H. apply andb_prop in H. destruct H. auto.
  - intros ->. destruct (leb_total b b) as [H|H]; rewrite H; reflexivity.
Qed.
Lemma leb_refl a : leb a a = true.
Proof. destruct (leb_total a a); auto. Qed.

Definition ltb (a b : S) : bool := leb a b && negb (leb b a).
Lemma ltb_spec a b : ltb a b = true <-> leb a b = true /\ a <> b.
Proof.
  unfold ltb. rewrite andb_true_iff, negb_true_iff. split; intros [H1 H2]; split; auto.
  - intros ->. rewrite leb_refl in H2. discriminate.
  - destruct (leb b a) eqn:E; auto. exfalso. apply H2. auto.
Qed.

Fixpoint ins (x : S) (l : list S) : list S :=
  match l with
  | [] => [x]
  | y :: l' => if leb x y then (if leb y x then l else x :: l) else y :: ins x l'
  end.
Definition sort_dedup (l : list S) : list S := fold_right ins [] l.

Inductive ssorted : list S -> Prop :=
| ss_nil : ssorted []
| ss_cons x l : ssorted l -> (forall y, In y l -> ltb x y = true) -> ssorted (x :: l).

Lemma ltb_trans a b c : ltb a b = true -> ltb b c = true -> ltb a c = true.
Proof.
  rewrite !ltb_spec. intros [H1 N1] [H2 N2]. split; [exact (leb_trans H1 H2)|].
  intros ->. apply N1. apply leb_antisym; auto.
Qed.

Lemma ltb_asym a b : ltb a b = true -> ltb b a = false.
Proof. unfold ltb. intros H. apply andb_prop in H as [_ H]. apply negb_true_iff in H. rewrite H. reflexivity. Qed.

Lemma ltb_neither a b : ltb a b = false -> ltb b a = false -> a = b.
Proof.
  unfold ltb. intros H1 H2. destruct (leb_total a b) as [H|H]; rewrite H in *; simpl in *.
  - apply negb_false_iff in H1. apply leb_antisym; auto.
  - apply negb_false_iff in H2. apply leb_antisym; auto.
Qed.

Lemma ins_in x l y : In y (ins x l) <-> y = x \/ In y l.
Proof.
  induction l as [|z l IH]; simpl.
  - split; intros [H|[]]; auto.
  - destruct (leb x z) eqn:E1; [destruct (leb z x) eqn:E2|]; simpl.
    + split; [auto|]. intros [->|H]; [left; apply leb_antisym; assumption|exact H].
    + split; intros [H|H]; auto.
    + rewrite IH. split; intros [H|[H|H]]; auto.
Qed.

Lemma ins_sorted x l : ssorted l -> ssorted (ins x l).
Proof.
  induction 1 as [|z l Hs IH Hz]; simpl.
  - constructor; [constructor|]. intros y [].
  - destruct (leb x z) eqn:E1.
    + destruct (leb z x) eqn:E2.
      * constructor; auto.
      * constructor; [constructor; auto|].
        assert (Hxz : ltb x z = true) by (unfold ltb; rewrite E1, E2; reflexivity).
        intros y [<-|I]; auto. eapply ltb_trans; eauto.
    + constructor; auto. intros y I. apply ins_in in I. destruct I as [->|I]; auto.
      unfold ltb. destruct (leb_total x z) as [H|H]; [congruence|]. rewrite H, E1. reflexivity.
Qed.

Lemma sort_dedup_sorted l : ssorted (sort_dedup l).
Proof. induction l; simpl; [constructor|apply ins_sorted; auto]. Qed.
Lemma sort_dedup_in l y : In y (sort_dedup l) <-> In y l.
Proof.
  induction l as [|x l IH]; simpl; [tauto|]. rewrite ins_in, IH.
  split; intros [H|H]; auto.
Qed.

Lemma ltb_irrefl a : ltb a a = false.
Proof. unfold ltb. rewrite leb_refl. reflexivity. Qed.

Lemma ssorted_unique l : ssorted l -> forall l', ssorted l' -> (forall y, In y l <-> In y l') -> l = l'.
Proof.
  induction 1 as [|x l Hs IH Hx]; intros l' Hs' Hiff.
  - destruct l' as [|z l']; auto. exfalso. apply (Hiff z). left; reflexivity.
  - destruct Hs' as [|z l' Hs' Hz].
    + exfalso. apply (Hiff x). left; reflexivity.
    + assert (x = z).
      { assert (Ix : In x (z :: l')) by (apply Hiff; left; reflexivity).
        assert (Iz : In z (x :: l)) by (apply Hiff; left; reflexivity).
        destruct Ix as [E|Ix]; auto. destruct Iz as [E|Iz]; auto.
        assert (C : ltb z z = true) by (eapply ltb_trans; [apply (Hz _ Ix)|apply (Hx _ Iz)]). rewrite ltb_irrefl in C. discriminate. }
      subst z. f_equal. apply IH; auto.
      intros y. split; intros I.
      * assert (I' : In y (x :: l')) by (apply Hiff; right; exact I). destruct I' as [<-|]; auto.
        specialize (Hx _ I). rewrite ltb_irrefl in Hx. discriminate.
      * assert (I' : In y (x :: l)) by (apply Hiff; right; exact I). destruct I' as [<-|]; auto.
        specialize (Hz _ I). rewrite ltb_irrefl in Hz. discriminate.
Qed.

Theorem sort_dedup_ext l l' : (forall y, In y l <-> In y l') -> sort_dedup l = sort_dedup l'.
Proof.
  intros H. apply ssorted_unique; try apply sort_dedup_sorted.
  intros y. rewrite !sort_dedup_in. apply H.
Qed.
End SortKeys.
