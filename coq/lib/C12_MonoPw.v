(** C12 -- order-free reading of Mono.valid, its invariance under permutation, and the results of
    Mono.monos in that reading.
    [Mono.valid] is stated along the order in which the enumerator assigned the nodes; the MCS matcher
    re-sorts every mapping, so the theorems need a characterisation that does not mention the order.
    Stdlib only. *)
From Coq Require Import List NArith Bool Arith Lia Permutation.
From SK Require Import lib.Mono.
Import ListNotations.

Section Pw.
Variables A B : Type.
Variable hn : list N.
Variable pl hl : N -> A.
Variable pe he : N -> N -> option B.
Variable nm : A -> A -> bool.
Variable em : B -> B -> bool.
Variable induced : bool.
Hypothesis pe_sym : forall u v, pe u v = pe v u.
Hypothesis he_sym : forall u v, he u v = he v u.

Definition pw (m : list (N * N)) : Prop :=
  (forall p h, In (p, h) m -> In h hn /\ nm (hl h) (pl p) = true) /\
  NoDup (map snd m) /\
  (forall x y, In x m -> In y m -> x <> y -> edge_ok pe he em induced (fst x) (snd x) y = true).

Lemma valid_pw m : valid hn pl hl pe he nm em induced m -> pw m.
Proof.
  induction 1 as [|p h acc Hv (IH1 & IH2 & IH3) Hh Hok].
  - split; [intros ? ? []|]. split; [constructor|intros ? ? []].
  - unfold ok in Hok. apply andb_prop in Hok. destruct Hok as [Hok He]. apply andb_prop in Hok. destruct Hok as [Hnm Hf].
    rewrite forallb_forall in He. apply fresh_spec in Hf.
    split; [|split].
    + intros p0 h0 [E|I]; [inversion E; subst; auto|eauto].
    + simpl. constructor; assumption.
    + intros x y [<-|Ix] [<-|Iy] Hne; simpl.
      * now elim Hne.
      * now apply He.
      * destruct x as [px hx]. simpl. rewrite (edge_ok_sym pe he em induced pe_sym he_sym). now apply He.
      * now apply IH3.
Qed.

Lemma pw_valid m : pw m -> valid hn pl hl pe he nm em induced m.
Proof.
  induction m as [|[p h] acc IH]; intros (H1 & H2 & H3); [constructor|].
  simpl in H2. inversion H2 as [|? ? Hnotin Hnd]; subst.
  destruct (H1 p h (or_introl eq_refl)) as (Hh & Hnm).
  constructor.
  - apply IH. split; [intros; apply H1; now right|]. split; [exact Hnd|].
    intros x y Ix Iy. apply H3; now right.
  - exact Hh.
  - unfold ok. rewrite Hnm. simpl. apply andb_true_intro. split.
    + now apply fresh_spec.
    + apply forallb_forall. intros y Iy. apply (H3 (p, h) y); [now left|now right|].
      intros <-. apply Hnotin. change h with (snd (p, h)). now apply in_map.
Qed.

Lemma pw_perm m m' : Permutation m m' -> pw m -> pw m'.
Proof.
  intros P (H1 & H2 & H3). split; [|split].
  - intros p h I. apply H1. eapply Permutation_in; [apply Permutation_sym; exact P|exact I].
  - eapply Permutation_NoDup; [apply Permutation_map; exact P|exact H2].
  - intros x y Ix Iy. apply H3; (eapply Permutation_in; [apply Permutation_sym; exact P|assumption]).
Qed.

Lemma map_fst_combine (c hs : list N) : length hs = length c -> map fst (combine c hs) = c.
Proof.
  revert hs. induction c as [|x r IH]; intros [|h hs] H; simpl in *; try discriminate; [reflexivity|].
  f_equal. apply IH. lia.
Qed.

Lemma combine_fst_snd (m : list (N * N)) : combine (map fst m) (map snd m) = m.
Proof. induction m as [|[a b] r IH]; simpl; [reflexivity|now rewrite IH]. Qed.

Lemma monos_pw c m : In m (monos c hn pl hl pe he nm em induced) -> map fst m = rev c /\ pw m.
Proof.
  intros H. destruct (monos_only_such _ _ _ _ _ _ _ _ _ _ H) as (hs & Hl & -> & Hv).
  split; [now rewrite map_rev, map_fst_combine|now apply valid_pw].
Qed.

Lemma pw_monos c m : Permutation (map fst m) c -> pw m ->
  exists m', In m' (monos c hn pl hl pe he nm em induced) /\ Permutation m m'.
Proof.
  intros Pc Hpw. destruct (Permutation_map_inv fst _ (Permutation_sym Pc)) as (m1 & Ec & P1).
  assert (P : Permutation m (rev m1)) by (eapply perm_trans; [exact P1|apply Permutation_rev]).
  exists (rev m1). split; [|exact P].
  rewrite <- (combine_fst_snd m1), <- Ec. apply monos_spec; [now rewrite Ec, !map_length|].
  rewrite Ec, combine_fst_snd. apply pw_valid. now apply (pw_perm m).
Qed.

End Pw.

Arguments pw {A B}. Arguments valid_pw {A B}. Arguments pw_valid {A B}. Arguments pw_perm {A B}.
Arguments monos_pw {A B}. Arguments pw_monos {A B}.

Lemma edge_ok_induced {B} (pe he : N -> N -> option B) em p h p' h' :
  edge_ok pe he em true p h (p', h') = true <->
  match pe p p', he h h' with
  | Some b, Some b' => em b' b = true
  | None, None => True
  | _, _ => False
  end.
Proof. unfold edge_ok. simpl. destruct (pe p p'), (he h h'); simpl; split; auto; discriminate. Qed.

Lemma pw_hosts {A B} hn hn' (pl hl : N -> A) (pe he : N -> N -> option B) nm em induced m :
  (forall p h, In (p, h) m -> In h hn -> In h hn') -> pw hn pl hl pe he nm em induced m -> pw hn' pl hl pe he nm em induced m.
Proof.
  intros H (H1 & H2 & H3). split; [|split; assumption]. intros p h I. destruct (H1 p h I) as (Hh & Hn). split; eauto.
Qed.
