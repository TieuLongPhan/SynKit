(** C19 — a fold-based rank-certificate checker that implies lib/RankBridge.check_rank (MathComp / ssreflect style).

    RankBridge.mmulz reads every entry with nth (cost i + j per access): a product of an m x k by a k x n matrix costs
    O(m n k (k + n)).  Here rows are consumed by folds (dot products against the transposed right factor): O(m n k).
    The fast checker also checks the shapes; whenever it accepts, check_rank accepts (check_rank_f_sound), so
    RankBridge.check_rank_sound applies. *)
From mathcomp Require Import ssreflect ssrfun ssrbool eqtype ssrnat seq.
From Coq Require Import ZArith.
From SK Require Import lib.RankBridge.
Set Implicit Arguments. Unset Strict Implicit. Unset Printing Implicit Defensive.

Definition dotz (u v : seq Z) : Z := foldr (fun p acc => (p.1 * p.2 + acc)%Z) 0%Z (zip u v).
Definition colz (B : seq (seq Z)) (j : nat) : seq Z := map (fun row => nth 0%Z row j) B.
Definition transpz (n : nat) (B : seq (seq Z)) : seq (seq Z) := mkseq (colz B) n.
Definition mmul_f (A Bt : seq (seq Z)) : seq (seq Z) := map (fun a => map (dotz a) Bt) A.
Definition wfz (m n : nat) (M : seq (seq Z)) : bool := (size M == m) && all (fun row => size row == n) M.
Fixpoint eqseqz (u v : seq Z) : bool :=
  match u, v with
  | [::], [::] => true
  | x :: u', y :: v' => Z.eqb x y && eqseqz u' v'
  | _, _ => false
  end.
Fixpoint eqmatz (A B : seq (seq Z)) : bool :=
  match A, B with
  | [::], [::] => true
  | a :: A', b :: B' => eqseqz a b && eqmatz A' B'
  | _, _ => false
  end.

Definition check_rank_f (m n r : nat) (S A B A' B' : seq (seq Z)) (d : Z) : bool :=
  [&& wfz m n S, wfz m r A, wfz r n B, wfz r m A', wfz n r B',
      eqmatz S (mmul_f A (transpz n B)), ~~ Z.eqb d 0 &
      eqmatz (mmul_f (mmul_f A' (transpz n S)) (transpz r B')) (scalarz r d)].

Lemma eqseqzP u v : eqseqz u v -> u = v.
Proof. by elim: u v => [|x u IH] [|y v] //= /andP [/Z.eqb_spec -> /IH ->]. Qed.
Lemma eqmatzP A B : eqmatz A B -> A = B.
Proof. by elim: A B => [|a A IH] [|b B] //= /andP [/eqseqzP -> /IH ->]. Qed.

Lemma eqmz_refl m n A : eqmz m n A A.
Proof. by apply/allP => i _; apply/allP => j _; apply/Z.eqb_spec. Qed.

Lemma sumz_shift k s (f : nat -> Z) :
  foldr (fun l acc => (f l + acc)%Z) 0%Z (iota s.+1 k) = foldr (fun l acc => (f l.+1 + acc)%Z) 0%Z (iota s k).
Proof. by elim: k s => [|k IH] s //=; rewrite IH. Qed.

Lemma sumz_ext k (f g : nat -> Z) : (forall l, l < k -> f l = g l) -> sumz k f = sumz k g.
Proof.
rewrite /sumz => H.
have: forall l, l \in iota 0 k -> f l = g l by move=> l; rewrite mem_iota add0n => /andP [_]; exact: H.
by elim: (iota 0 k) => [|a s IH] //= E; rewrite E ?mem_head // IH // => l ls; apply: E; rewrite inE ls orbT.
Qed.

Lemma dotz_sumz k : forall u v, size u = k -> size v = k ->
  dotz u v = sumz k (fun l => (nth 0%Z u l * nth 0%Z v l)%Z).
Proof.
elim: k => [|k IH] [|x u] [|y v] //= [su] [sv].
rewrite /dotz /= -/(dotz u v) (IH u v su sv) /sumz /=; congr (_ + _)%Z.
by rewrite (sumz_shift k 0 (fun l => (nth 0%Z (x :: u) l * nth 0%Z (y :: v) l)%Z)).
Qed.

Lemma size_colz B j : size (colz B j) = size B.
Proof. by rewrite /colz size_map. Qed.
Lemma nth_colz B j l : l < size B -> nth 0%Z (colz B j) l = getz B l j.
Proof. by move=> H; rewrite /colz (nth_map [::]). Qed.

(** the fold-based product of well-formed factors is RankBridge's product *)
Lemma mmul_f_mmulz m k n A B : wfz m k A -> wfz k n B -> mmul_f A (transpz n B) = mmulz m k n A B.
Proof.
move=> /andP [/eqP sA rA'] /andP [/eqP sB _]; have rA := all_nthP [::] rA'.
apply: (@eq_from_nth _ [::]); first by rewrite /mmul_f /mmulz size_map size_mkseq.
move=> i; rewrite /mmul_f size_map sA => im.
rewrite (nth_map [::]) ?sA // /mmulz nth_mkseq //.
apply: (@eq_from_nth _ 0%Z); first by rewrite size_map /transpz !size_mkseq.
move=> j; rewrite size_map /transpz size_mkseq => jn.
rewrite (nth_map [::]) ?size_mkseq // nth_mkseq // nth_mkseq //.
have si : size (nth [::] A i) = k by apply/eqP; apply: rA; rewrite sA.
rewrite (@dotz_sumz k) // ?size_colz //.
apply: sumz_ext => l lk.
by rewrite nth_colz ?sB.
Qed.

Lemma wfz_mmulz m k n A B : wfz m n (mmulz m k n A B).
Proof.
rewrite /wfz /mmulz size_mkseq eqxx /=.
by apply/(all_nthP [::]) => i; rewrite size_mkseq => im; rewrite nth_mkseq // size_mkseq.
Qed.

Theorem check_rank_f_sound m n r S A B A' B' d :
  check_rank_f m n r S A B A' B' d -> check_rank m n r S A B A' B' d.
Proof.
case/and5P => wS wA wB wA' /and4P [wB' /eqmatzP eS dn0 /eqmatzP eI].
rewrite /check_rank dn0 /=.
rewrite -(mmul_f_mmulz wA wB) -eS eqmz_refl /=.
rewrite -(mmul_f_mmulz wA' wS).
have w2 : wfz r n (mmul_f A' (transpz n S)) by rewrite (mmul_f_mmulz wA' wS); exact: wfz_mmulz.
by rewrite -(mmul_f_mmulz w2 wB') eI eqmz_refl.
Qed.

Print Assumptions check_rank_f_sound.
