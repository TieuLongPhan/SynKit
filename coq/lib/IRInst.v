(* A concrete signature function in the style of nauty.py (attribute codes, degree, per-cell neighbour counts,
   sorted multiset of incident edge orders) satisfies the hypothesis sig_rel of IRCore for a literally relabelled
   graph, and lexicographic order on list Z is a total order. *)
From Coq Require Import List ZArith Bool Lia Permutation.
From SK Require Import lib.IRSortKeys lib.IRCore lib.Reach.
Import ListNotations.
Set Implicit Arguments.

(* ---------- lexicographic order on list Z ---------- *)
Fixpoint lexleb (a b : list Z) : bool :=
  match a, b with
  | [], _ => true
  | _ :: _, [] => false
  | x :: a', y :: b' => if Z.ltb x y then true else if Z.ltb y x then false else lexleb a' b'
  end.
Lemma lexleb_total a : forall b, lexleb a b = true \/ lexleb b a = true.
Proof.
  induction a as [|x a IH]; intros [|y b]; simpl; auto.
  destruct (Z.ltb_spec x y), (Z.ltb_spec y x); auto; try lia.
Qed.
Lemma lexleb_antisym a : forall b, lexleb a b = true -> lexleb b a = true -> a = b.
Proof.
  induction a as [|x a IH]; intros [|y b]; simpl; auto; try discriminate.
  destruct (Z.ltb_spec x y), (Z.ltb_spec y x); try discriminate; try lia.
  intros Ha Hb. assert (x = y) by lia. subst. f_equal. auto.
Qed.
Lemma lexleb_trans a : forall b c, lexleb a b = true -> lexleb b c = true -> lexleb a c = true.
Proof.
  induction a as [|x a IH]; intros [|y b] [|z c]; simpl; auto; try discriminate.
  destruct (Z.ltb_spec x y) as [Hxy|Hxy].
  - destruct (Z.ltb_spec y z) as [Hyz|Hyz]; [|destruct (Z.ltb_spec z y); [discriminate|]];
      intros _ _; rewrite (proj2 (Z.ltb_lt x z)) by lia; reflexivity.
  - destruct (Z.ltb_spec y x); [discriminate|]. assert (x = y) by lia. subst y.
    destruct (Z.ltb x z); auto. destruct (Z.ltb z x); auto. apply IH.
Qed.

(* ---------- graphs with coded attributes ---------- *)
Record lgraph := { gnodes : list (N * list Z); gedges : list (N * N * Z) }.
Definition attr (g : lgraph) (v : N) : list Z :=
  match find (fun p => N.eqb (fst p) v) (gnodes g) with Some p => snd p | None => [] end.
Definition inc1 (v : N) (e : N * N * Z) : list (N * Z) :=
  let '(a, b, o) := e in (if N.eqb a v then [(b, o)] else []) ++ (if N.eqb b v then [(a, o)] else []).
Definition inc (g : lgraph) (v : N) : list (N * Z) := flat_map (inc1 v) (gedges g).
Definition memN (x : N) (c : list N) : bool := existsb (N.eqb x) c.
Definition cnt (c : list N) (ns : list N) : Z := Z.of_nat (length (filter (fun n => memN n c) ns)).

Section WithSort.
Variable sortZ : list Z -> list Z.      (* any function of the multiset; instantiated by insertion sort in the build phase *)

Definition sigG (g : lgraph) (P : partition) (v : N) : list Z :=
  attr g v ++ [Z.of_nat (length (inc g v))] ++ map (fun c => cnt c (map fst (inc g v))) P ++ sortZ (map snd (inc g v)).

Definition relabel (pi : N -> N) (g : lgraph) : lgraph :=
  {| gnodes := map (fun p => (pi (fst p), snd p)) (gnodes g);
     gedges := map (fun e => let '(a, b, o) := e in (pi a, pi b, o)) (gedges g) |}.

Section Inst.
Variable pi : N -> N.
Hypothesis pi_inj : forall x y, pi x = pi y -> x = y.

Lemma eqb_pi x y : N.eqb (pi x) (pi y) = N.eqb x y.
Proof. exact (@pi_eqb pi pi_inj x y). Qed.

Lemma attr_relabel g v : attr (relabel pi g) (pi v) = attr g v.
Proof.
  unfold attr, relabel; simpl. induction (gnodes g) as [|[n a] l IH]; simpl; auto.
  rewrite eqb_pi. destruct (N.eqb n v); auto.
Qed.

Lemma inc_relabel g v : inc (relabel pi g) (pi v) = map (fun p => (pi (fst p), snd p)) (inc g v).
Proof.
  unfold inc, relabel; simpl. rewrite flat_map_map, map_flat_map.
  apply flat_map_ext. intros [[a b] o]. unfold inc1. rewrite !eqb_pi.
  destruct (N.eqb a v), (N.eqb b v); reflexivity.
Qed.

Lemma memN_spec x c : memN x c = true <-> In x c.
Proof. exact (mem_spec x c). Qed.

Lemma memN_rel c c' x : cellR pi c c' -> memN (pi x) c' = memN x c.
Proof.
  intros H. apply eq_true_iff_eq. rewrite !memN_spec. split.
  - intros I. apply (Permutation_in _ (Permutation_sym H)) in I. apply in_map_iff in I.
    destruct I as (y & E & I). apply pi_inj in E. subst. auto.
  - intros I. apply (Permutation_in _ H). apply in_map. auto.
Qed.

Lemma cnt_rel c c' ns : cellR pi c c' -> cnt c' (map pi ns) = cnt c ns.
Proof.
  intros H. unfold cnt. f_equal. induction ns as [|n ns IH]; simpl; auto.
  rewrite (memN_rel n H). destruct (memN n c); simpl; auto.
Qed.

Lemma cnts_rel P P' ns : partR pi P P' -> map (fun c => cnt c (map pi ns)) P' = map (fun c => cnt c ns) P.
Proof. induction 1 as [|c c' P P' Hc HP IH]; simpl; [reflexivity|]. now rewrite (cnt_rel _ Hc), IH. Qed.

Theorem sigG_rel g P P' v : partR pi P P' -> sigG (relabel pi g) P' (pi v) = sigG g P v.
Proof.
  intros HP. unfold sigG. rewrite attr_relabel, inc_relabel, !map_length, !map_map. simpl.
  rewrite <- (cnts_rel (map fst (inc g v)) HP), map_map. reflexivity.
Qed.
End Inst.

(* putting the pieces together: leaf enumeration of the relabelled graph *)
Theorem nauty_leaves_equivariant (pi : N -> N) (pi_inj : forall x y, pi x = pi y -> x = y) g rfuel fuel P P' pre :
  partR pi P P' ->
  Permutation (map (map pi) (leaves lexleb (sigG g) rfuel fuel P pre))
              (leaves lexleb (sigG (relabel pi g)) rfuel fuel P' (map pi pre)).
Proof.
  intros HP. apply leaves_rel; auto.
  - apply lexleb_total.
  - intros; eapply lexleb_trans; eauto.
  - apply lexleb_antisym.
  - intros Q Q' v HQ. apply sigG_rel; auto.
Qed.
End WithSort.
Print Assumptions nauty_leaves_equivariant.
