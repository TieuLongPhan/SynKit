(* Verified enumerator of label-preserving (induced or not) monomorphisms: sound, complete, duplicate-free.
   Stdlib only. *)
From Coq Require Import List Arith NArith Bool.
Import ListNotations.
Set Implicit Arguments.

Section Mono.
Variables A B : Type.
Variable pn hn : list N.              (* pattern / host node lists *)
Variable pl hl : N -> A.              (* node labels *)
Variable pe he : N -> N -> option B.  (* symmetric adjacency with edge labels *)
Variable nm : A -> A -> bool.         (* nm host pattern *)
Variable em : B -> B -> bool.         (* em host pattern *)
Variable induced : bool.
Hypothesis pe_sym : forall u v, pe u v = pe v u.
Hypothesis he_sym : forall u v, he u v = he v u.
Hypothesis hn_nodup : NoDup hn.

Definition mapping := list (N * N).   (* (pattern node, host node), most recent first *)

Definition edge_ok (p h : N) (ph : N * N) : bool :=
  match pe p (fst ph), he h (snd ph) with
  | Some b, Some b' => em b' b
  | Some _, None => false
  | None, Some _ => negb induced
  | None, None => true
  end.

Definition fresh (h : N) (acc : mapping) : bool := negb (existsb (fun ph => N.eqb (snd ph) h) acc).

Definition ok (p h : N) (acc : mapping) : bool :=
  nm (hl h) (pl p) && fresh h acc && forallb (edge_ok p h) acc.

Fixpoint extend (ps : list N) (acc : mapping) : list mapping :=
  match ps with
  | [] => [acc]
  | p :: ps' => flat_map (fun h => if ok p h acc then extend ps' ((p, h) :: acc) else []) hn
  end.

Definition monos : list mapping := extend pn [].

(* ---------- specification ---------- *)
Inductive valid : mapping -> Prop :=
| valid_nil : valid []
| valid_cons p h acc : valid acc -> In h hn -> ok p h acc = true -> valid ((p, h) :: acc).

(* the inductive reading coincides with the pointwise one *)
Lemma fresh_spec h acc : fresh h acc = true <-> ~ In h (map snd acc).
Proof.
  unfold fresh. rewrite negb_true_iff, <- not_true_iff_false, existsb_exists. split.
  - intros H I. apply H. apply in_map_iff in I. destruct I as (ph & E & I). exists ph. split; auto. subst. apply N.eqb_refl.
  - intros H (ph & I & E). apply H. apply N.eqb_eq in E. subst. apply in_map. exact I.
Qed.

Lemma edge_ok_sym p h p' h' : edge_ok p h (p', h') = edge_ok p' h' (p, h).
Proof. unfold edge_ok; simpl. rewrite (pe_sym p p'), (he_sym h h'). reflexivity. Qed.

Lemma valid_pointwise m : valid m ->
  (forall p h, In (p, h) m -> In h hn /\ nm (hl h) (pl p) = true) /\
  NoDup (map snd m) /\
  (forall l1 p h l2 p' h' l3, m = l1 ++ (p, h) :: l2 ++ (p', h') :: l3 -> edge_ok p h (p', h') = true).
Proof.
  induction 1 as [|p h acc Hv (IH1 & IH2 & IH3) Hh Hok]; simpl.
  - split; [intros ? ? []|]. split; [constructor|]. intros l1 p h l2 p' h' l3 E. destruct l1; discriminate.
  - unfold ok in Hok. apply andb_prop in Hok as [Hok He]. apply andb_prop in Hok as [Hnm Hf].
    split; [|split].
    + intros p0 h0 [[= <- <-]|I]; [auto|exact (IH1 _ _ I)].
    + constructor; auto. apply fresh_spec; auto.
    + intros l1 p0 h0 l2 p' h' l3 E. destruct l1 as [|x l1]; simpl in E.
      * injection E as <- <- ->. rewrite forallb_forall in He. apply He. apply in_or_app. right. left. reflexivity.
      * injection E as _ ->. exact (IH3 _ _ _ _ _ _ _ eq_refl).
Qed.

(* ---------- shape of results ---------- *)
Lemma extend_shape ps acc m : In m (extend ps acc) ->
  exists hs, length hs = length ps /\ m = rev (combine ps hs) ++ acc.
Proof.
  revert acc m. induction ps as [|p ps IH]; intros acc m Hin; simpl in *.
  - destruct Hin as [<-|[]]. exists []. auto.
  - apply in_flat_map in Hin. destruct Hin as (h & Hh & Hin).
    destruct (ok p h acc); [|destruct Hin].
    apply IH in Hin. destruct Hin as (hs & Hl & ->). exists (h :: hs). split; [simpl; now rewrite Hl|].
    simpl. rewrite <- app_assoc. reflexivity.
Qed.

(* ---------- soundness ---------- *)
Lemma extend_sound ps acc m : valid acc -> In m (extend ps acc) -> valid m.
Proof.
  revert acc m. induction ps as [|p ps IH]; intros acc m Hv Hin; simpl in *.
  - destruct Hin as [<-|[]]. exact Hv.
  - apply in_flat_map in Hin. destruct Hin as (h & Hh & Hin).
    destruct (ok p h acc) eqn:Hok; [|destruct Hin].
    eapply IH; [|exact Hin]. constructor; auto.
Qed.

(* ---------- completeness ---------- *)
Lemma valid_app_inv l acc : valid (l ++ acc) -> valid acc.
Proof. induction l as [|[p h] l IH]; simpl; auto. intros H. inversion H; subst. auto. Qed.

Lemma extend_complete ps : forall hs acc, length hs = length ps ->
  valid (rev (combine ps hs) ++ acc) -> In (rev (combine ps hs) ++ acc) (extend ps acc).
Proof.
  induction ps as [|p ps IH]; intros hs acc Hl Hv.
  - destruct hs; [|discriminate]. simpl. left. reflexivity.
  - destruct hs as [|h hs]; [discriminate|]. simpl in *. rewrite <- app_assoc in *. simpl in *.
    assert (Hv' : valid ((p, h) :: acc)) by (eapply valid_app_inv; exact Hv).
    inversion Hv' as [|? ? ? _ Hh Hok]; subst. apply in_flat_map. exists h. split; auto.
    rewrite Hok.
    apply IH; [exact (Nat.succ_inj _ _ Hl) | exact Hv].
Qed.

Theorem monos_spec hs : length hs = length pn ->
  (In (rev (combine pn hs)) monos <-> valid (rev (combine pn hs))).
Proof.
  intros Hl. unfold monos. split.
  - intros H. eapply extend_sound; [constructor | exact H].
  - intros H. rewrite <- (app_nil_r (rev (combine pn hs))). apply extend_complete; auto.
    rewrite app_nil_r. exact H.
Qed.

Theorem monos_only_such m : In m monos -> exists hs, length hs = length pn /\ m = rev (combine pn hs) /\ valid m.
Proof.
  intros H. destruct (extend_shape _ _ _ H) as (hs & Hl & E). rewrite app_nil_r in E.
  exists hs. split; auto. split; auto. eapply extend_sound; [constructor | exact H].
Qed.

(* ---------- no duplicates ---------- *)
Lemma nodup_app (Y : Type) (l1 l2 : list Y) :
  NoDup l1 -> NoDup l2 -> (forall y, In y l1 -> In y l2 -> False) -> NoDup (l1 ++ l2).
Proof.
  induction l1 as [|y l1 IH]; simpl; intros H1 H2 Hd; auto.
  inversion H1; subst. constructor.
  - intro I. apply in_app_or in I. destruct I as [I|I]; [contradiction|]. eapply Hd; eauto.
  - apply IH; auto. intros; eapply Hd; eauto.
Qed.

Lemma NoDup_flat_map (X Y : Type) (f : X -> list Y) l :
  NoDup l -> (forall x, In x l -> NoDup (f x)) ->
  (forall x x' y, In x l -> In x' l -> In y (f x) -> In y (f x') -> x = x') ->
  NoDup (flat_map f l).
Proof.
  induction l as [|x l IH]; simpl; intros Hnd Hf Hd; [constructor|].
  inversion Hnd; subst.
  apply nodup_app.
  - apply Hf. left; reflexivity.
  - apply IH; auto. intros; eapply Hd; eauto.
  - intros y I1 I2. apply in_flat_map in I2. destruct I2 as (x' & Ix' & Iy).
    assert (x = x') by (eapply Hd; eauto). subst. contradiction.
Qed.

Lemma extend_nodup ps acc : NoDup (extend ps acc).
Proof.
  revert acc. induction ps as [|p ps IH]; intros acc; simpl.
  - constructor; [intros []|constructor].
  - apply NoDup_flat_map; auto.
    + intros h _. destruct (ok p h acc); [apply IH|constructor].
    + intros h h' m Hh Hh' I I'.
      destruct (ok p h acc); [|destruct I]. destruct (ok p h' acc); [|destruct I'].
      apply extend_shape in I. apply extend_shape in I'.
      destruct I as (hs & Hl & E). destruct I' as (hs' & Hl' & E').
      rewrite E in E'. apply (f_equal (@rev _)) in E'. rewrite !rev_app_distr in E'. simpl in E'.
      rewrite <- !app_assoc in E'. apply app_inv_head in E'. simpl in E'. congruence.
Qed.

Theorem monos_nodup : NoDup monos.
Proof. apply extend_nodup. Qed.
End Mono.

Print Assumptions monos_spec.
Print Assumptions monos_nodup.

(* executable sanity: path P3 (1-2-3) into triangle, all labels equal *)
Definition adj (es : list (N*N)) (u v : N) : option unit :=
  if existsb (fun e => (N.eqb (fst e) u && N.eqb (snd e) v) || (N.eqb (fst e) v && N.eqb (snd e) u)) es then Some tt else None.
Eval vm_compute in length (monos [1;2;3]%N [7;8;9]%N (fun _ => tt) (fun _ => tt)
   (adj [(1,2);(2,3)]%N) (adj [(7,8);(8,9);(7,9)]%N) (fun _ _ => true) (fun _ _ => true) false).
Eval vm_compute in length (monos [1;2;3]%N [7;8;9]%N (fun _ => tt) (fun _ => tt)
   (adj [(1,2);(2,3)]%N) (adj [(7,8);(8,9);(7,9)]%N) (fun _ _ => true) (fun _ _ => true) true).
