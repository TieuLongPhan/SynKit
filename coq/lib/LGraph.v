(** Labelled graphs as insertion-ordered association lists (DESIGN.md section 3).
    Shared by the graph-side models.  Stdlib only.  Node ids are [N]; node and
    edge attribute types are parameters.  Undirected lookups are symmetric by
    construction; directed graphs use [arc]. *)
From Coq Require Import List NArith Bool.
Import ListNotations.
Set Implicit Arguments.

Record lgraph (A B : Type) := LG { gnodes : list (N * A); gedges : list (N * N * B) }.
Arguments LG {A B}.

Section LGraph.
Variables A B : Type.
Implicit Type g : lgraph A B.

Definition node_ids g : list N := map fst (gnodes g).

Fixpoint assoc {V} (k : N) (l : list (N * V)) : option V :=
  match l with
  | [] => None
  | (k', v) :: r => if N.eqb k k' then Some v else assoc k r
  end.

Definition label g (u : N) : option A := assoc u (gnodes g).
Definition has_node g (u : N) : bool := match label g u with Some _ => true | None => false end.

(** first stored edge joining u and v in either orientation (networkx Graph: one
    attribute dict per unordered pair) *)
Fixpoint find_edge (u v : N) (es : list (N * N * B)) : option B :=
  match es with
  | [] => None
  | (a, b, x) :: r =>
      if (N.eqb a u && N.eqb b v) || (N.eqb a v && N.eqb b u) then Some x else find_edge u v r
  end.
Definition adj g (u v : N) : option B := find_edge u v (gedges g).

(** directed lookup (networkx DiGraph) *)
Fixpoint find_arc (u v : N) (es : list (N * N * B)) : option B :=
  match es with
  | [] => None
  | (a, b, x) :: r => if N.eqb a u && N.eqb b v then Some x else find_arc u v r
  end.
Definition arc g (u v : N) : option B := find_arc u v (gedges g).

Lemma find_edge_sym u v es : find_edge u v es = find_edge v u es.
Proof.
  induction es as [|[[a b] x] r IH]; simpl; [reflexivity|].
  rewrite IH. rewrite (orb_comm (N.eqb a u && N.eqb b v)). reflexivity.
Qed.
Lemma adj_sym g u v : adj g u v = adj g v u.
Proof. apply find_edge_sym. Qed.

(** neighbours in edge-list order (may repeat if the edge list repeats a pair) *)
Definition nbrs g (u : N) : list N :=
  flat_map (fun e => let '(a, b, _) := e in
                     if N.eqb a u then [b] else if N.eqb b u then [a] else []) (gedges g).
Definition succs g (u : N) : list N :=
  flat_map (fun e => let '(a, b, _) := e in if N.eqb a u then [b] else []) (gedges g).
Definition preds g (u : N) : list N :=
  flat_map (fun e => let '(a, b, _) := e in if N.eqb b u then [a] else []) (gedges g).

Definition mem (x : N) (l : list N) : bool := existsb (N.eqb x) l.
Lemma mem_spec x l : mem x l = true <-> In x l.
Proof.
  unfold mem. rewrite existsb_exists. split.
  - intros (y & Hy & E). apply N.eqb_eq in E. subst. exact Hy.
  - intros H. exists x. split; [exact H|apply N.eqb_refl].
Qed.

Lemma assoc_in {V} k (l : list (N * V)) v : assoc k l = Some v -> In (k, v) l.
Proof.
  induction l as [|[k' v'] r IH]; simpl; [discriminate|].
  destruct (N.eqb_spec k k') as [->|Hne].
  - intros [= ->]. left. reflexivity.
  - intros H. right. apply IH. exact H.
Qed.

Lemma assoc_nodup_in {V} k (l : list (N * V)) v : NoDup (map fst l) -> In (k, v) l -> assoc k l = Some v.
Proof.
  induction l as [|[k' v'] r IH]; simpl; [intros _ []|].
  intros Hnd Hin. inversion Hnd as [|? ? Hnotin Hnd']; subst.
  destruct Hin as [E|Hin].
  - inversion E; subst. rewrite N.eqb_refl. reflexivity.
  - destruct (N.eqb_spec k k') as [->|Hne].
    + exfalso. apply Hnotin. change k' with (fst (k', v)). apply in_map. exact Hin.
    + apply IH; assumption.
Qed.

(** well-formedness of an undirected simple graph *)
Definition wf g : Prop :=
  NoDup (node_ids g) /\
  (forall a b x, In (a, b, x) (gedges g) -> In a (node_ids g) /\ In b (node_ids g) /\ a <> b) /\
  (forall l1 a b x l2, gedges g = l1 ++ (a, b, x) :: l2 -> find_edge a b l1 = None /\ find_edge a b l2 = None).

(** induced subgraph on a node list (keeps insertion order of the parent) *)
Definition induced_sub g (keep : list N) : lgraph A B :=
  LG (filter (fun p => mem (fst p) keep) (gnodes g))
     (filter (fun e => let '(a, b, _) := e in mem a keep && mem b keep) (gedges g)).

(** relabelling by a function on node ids *)
Definition relabel (f : N -> N) g : lgraph A B :=
  LG (map (fun p => (f (fst p), snd p)) (gnodes g))
     (map (fun e => let '(a, b, x) := e in (f a, f b, x)) (gedges g)).

End LGraph.

Arguments assoc {V} k l.
