(** C14 — fit calls whose ENTRY LIST differs from call to call on one BatchReactor object, and the facade
    synkit/Synthesis/Reactor/benchmark.py built on it:

      Benchmark.fit(rules):  fw_out = BatchReactor.fit(rules, invert=False)      with host_key = 'r' (reactant sides)
                             self._host_key = 'p'
                             bw_out = BatchReactor.fit(rules, invert=True)       on the SAME object, same applier and cache,
                             self._host_key = 'r'                                  the entries now read at 'p' (product sides)
                             entry['fw'], entry['bw'] = the two outputs of the entry

    The client program of a call is [fit_prog] of model/C14_Model.v; a call carries its own entry contents.
    Definitions only; proofs in proof/C14_Batch.v (fit calls with their own entries) and proof/C14_Bench.v (the facade). *)
From Coq Require Import NArith List Bool Arith.
Import ListNotations.
From SK Require Import lib.Tok model.C14_Model.
Local Open Scope N_scope.

Definition call2 := (list rspec * bool * list N)%type.      (* rules, direction, entry contents of THIS call *)

Fixpoint calls_prog2 (nx : N) (calls : list call2) : list cop :=
  match calls with
  | [] => []
  | (rs, inv, subs) :: r => let '(ops, n') := fit_prog nx rs inv subs in ops ++ calls_prog2 n' r
  end.

Definition batch_prog2 (pool : list N) (calls : list call2) : list cop :=
  map CAlloc pool ++ calls_prog2 (N.of_nat (length pool)) calls
  ++ map (fun k => CRelease (N.of_nat k)) (seq 0 (length pool)).

Fixpoint fit_outputs2 (dd : bool) (calls : list call2) (results : list (list N)) : list (list (list N)) :=
  match calls with
  | [] => []
  | (rs, _, subs) :: r => let '(gs, rest) := chop (length subs) (length rs) results in
                          map (entry_out dd) gs :: fit_outputs2 dd r rest
  end.

(** one Benchmark.fit call = a forward fit over the reactant sides, then a backward fit over the product sides *)
Definition bench_calls (rules : list rspec) (subs_r subs_p : list N) : list call2 :=
  [(rules, false, subs_r); (rules, true, subs_p)].

(** what Benchmark.fit writes into the entries: per entry (fw, bw) *)
Definition bench_entries (outs : list (list (list N))) : list (list N * list N) :=
  match outs with
  | [fw; bw] => combine fw bw
  | _ => []
  end.

Definition run_bench (c : cfg) (t : table) (pool : list N) (fits : list (list rspec * list N * list N)) (tr : list event) : tok :=
  let calls := flat_map (fun f => let '(rules, sr, sp) := f in bench_calls rules sr sp) fits in
  let '(ok, outs, fin) := run (list N) (tbl_exec t) CURRENT_PINNED (c_cache c) (c_max c) (init _) tr in
  L [tbool (cops_eqb (client_view tr) (batch_prog2 pool calls)); tbool ok; tok_answers outs;
     tok_keys (c_cache c) (cache fin);
     tlist (tlist (tlist tN)) (fit_outputs2 (c_dedupe c) calls (map snd outs))].
