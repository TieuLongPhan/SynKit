(** C14 — BatchReactor.fit with worker processes (entry_n_jobs > 1, or parallel_rules with rule_n_jobs > 1):
    what joblib / loky does to the objects of the heap+cache machine of model/C14_Model.v.

    A task sent to a worker process is PICKLED: the callable (the closure [worker] holding the BatchReactor, i.e. the
    _RuleApplier with its cache dict, and the rule graphs; or the bound _RuleApplier itself with substrate and rule as
    arguments) is copied into the other process.  Copies are new objects: new identities, addresses chosen by the other
    process's allocator, the contents of the originals; sharing inside one pickle is preserved (a rule object that is
    both an argument and pinned by a cache entry arrives as ONE copy).  The cache dict travels with its KEYS unchanged
    — (id(substrate), id(rule), invert) of the PARENT process, meaningless in the worker, where a new object may well
    get such an address — and with its pinned objects replaced by their copies.  Whatever the worker then adds to its
    copy of the cache is lost when the task ends.

    [ship]  builds the worker's initial state from the parent's state,
    [worker_prog]  is what the closure [worker] does for the entries of one batch of tasks,
    [fit_workers_synth]  cuts the entry list into consecutive batches (order-preserving, joblib's contract), runs each batch
    on a freshly shipped state and concatenates the per-entry outputs.
    Definitions only; proofs in proof/C14_Workers.v.  The worker-side allocator / collector is, as in C14_Model, not a
    function: theorems quantify over every legal worker trace; the correspondence evaluates an adversarial synthetic
    one (rule copies sit at the addresses their originals had in the parent, new substrates are given the address of a
    stale substrate key whenever one is free — so stale keys DO collide —, everything unreferenced is collected at once). *)
From Coq Require Import NArith List Bool Arith.
Import ListNotations.
From SK Require Import lib.Tok model.C14_Model.
Local Open Scope N_scope.

Section Ship.
  Variable R : Type.

  (** pickling order: the rule objects (held by the closure) first, then whatever the cache pins; each object once *)
  Definition ship_ids (c : list (centry R)) (roots : list N) : list N :=
    dedupe (roots ++ flat_map (fun e => [e_ps e; e_pr e]) c).

  Fixpoint index_of (o : N) (ids : list N) : N :=
    match ids with
    | [] => 0
    | x :: r => if x =? o then 0 else 1 + index_of o r
    end.

  Definition ship_entry (ids : list N) (e : centry R) : centry R :=
    mkEntry (e_ks e) (e_kr e) (e_kinv e) (index_of (e_ps e) ids) (index_of (e_pr e) ids) (e_res e).

  (** contents of the copies, by their new identity 0..k-1; [cs] = the parent's contents by identity *)
  Definition ship_contents (cs : list N) (ids : list N) : list N := map (fun o => nth (N.to_nat o) cs 0) ids.

  (** the worker's initial state: copy k has identity k, address [nth k addrs 0], is held by the client exactly when it
      is one of the roots (the pinned-only copies are kept alive by the cache copy alone) *)
  Definition ship (cs : list N) (s : state R) (roots addrs : list N) : state R :=
    let ids := ship_ids (cache s) roots in
    let cs' := ship_contents cs ids in
    mkSt (map (fun k => mkObj (N.of_nat k) (nth k addrs 0) (nth k cs' 0)
                              (existsb (N.eqb (nth k ids 0)) roots))
              (seq 0 (length ids)))
         (map (ship_entry ids) (cache s))
         (N.of_nat (length ids)).
End Ship.

Arguments ship_ids {R}. Arguments ship_entry {R}. Arguments ship {R}.

(** the closure [worker] applied to the entries of one batch: the rule copies are objects 0.. of the shipped heap *)
Definition worker_prog (nids : nat) (rule_copies : list N) (inv : bool) (chunk : list N) : list cop :=
  fst (entries_prog (N.of_nat nids) rule_copies inv chunk).

(** rule-level parallelism: ONE application per task; substrate and rule are both shipped *)
Definition rule_task_prog (s r : N) (inv : bool) : list cop := [CApply s r inv].

(* ------------------------------------------------------------------ a synthetic environment for the correspondence *)

(** lowest address not used by a live object *)
Fixpoint free_addr (fuel : nat) (a : N) (h : list obj) : N :=
  match fuel with
  | O => a
  | S f => if existsb (fun x => o_addr x =? a) h then free_addr f (a + 1) h else a
  end.

Section Synth.
  Variable R : Type.
  Variable execute : N -> N -> bool -> R.
  Variable cache_on : bool.
  Variable cmax : nat.

  (** collect, eagerly, every object that may be collected *)
  Definition collectable (st : state R) (x : obj) : bool :=
    negb (o_held x) && negb (pins R (o_id x) (cache st)).

  Definition gc_events (st : state R) : list event :=
    map (fun x => ECollect (o_id x)) (filter (collectable st) (heap st)).

  (** the adversarial allocator: an address that occurs as a substrate key of the current cache and is free (a stale
      key of a shipped cache, or the key of an entry whose substrate was collected), else the lowest free address *)
  Definition pick_addr (st : state R) : N :=
    match filter (fun a => negb (addr_live a (heap st))) (map (fun e => e_ks e) (cache st)) with
    | a :: _ => a
    | [] => free_addr (S (length (heap st))) 1 (heap st)
    end.

  (** run a client program under the synthetic environment; returns the trace it produced *)
  Fixpoint synth (st : state R) (p : list cop) : list event :=
    match p with
    | [] => []
    | op :: rest =>
        let ev := match op with
                  | CAlloc c => EAlloc (pick_addr st) c
                  | CApply s r i => EApply s r i
                  | CRelease o => ERelease o
                  end in
        match step R execute true cache_on cmax st ev with
        | None => [ev]
        | Some (st1, _) =>
            let gcs := gc_events st1 in
            let st2 := fold_left (fun s e => match step R execute true cache_on cmax s e with
                                             | Some (s', _) => s' | None => s end) gcs st1 in
            ev :: gcs ++ synth st2 rest
        end
    end.
End Synth.

(* ------------------------------------------------------------------ fit with workers *)

Fixpoint wchunks_fuel {A} (fuel c : nat) (l : list A) : list (list A) :=
  match fuel with
  | O => []
  | S f => match l with [] => [] | _ => firstn c l :: wchunks_fuel f c (skipn c l) end
  end.
Definition wchunks {A} (c : nat) (l : list A) : list (list A) := wchunks_fuel (length l) (Nat.max c 1) l.

(** batch size joblib would use is not specified; any order-preserving cut works for the theorems — the correspondence
    uses ceil(n / n_jobs) *)
Definition batch_len (n n_jobs : nat) : nat := Nat.div (n + Nat.max n_jobs 1 - 1) (Nat.max n_jobs 1).

(** addresses of the copies in the synthetic worker: a root (rule object, or the substrate of a rule-level task) sits at the
    address its original has in the parent — so the rule component of every stale key matches —, a copy that is only pinned
    by the cache is moved out of the way (beyond every parent address) — so the substrate component of its stale key is a
    FREE address in the worker, which [pick_addr] hands to the next new substrate *)
Definition copy_addrs {R} (sp : state R) (roots ids : list N) : list N :=
  let top := fold_right (fun x m => N.max (o_addr x) m) 0 (heap sp) + 1 in
  map (fun o => match find_obj o (heap sp) with
                | Some x => if existsb (N.eqb o) roots then o_addr x else o_addr x + top
                | None => 0
                end) ids.

Section FitWorkers.
  Variable execute : N -> N -> bool -> list N.
  Variable cache_on : bool.
  Variable cmax : nat.
  Variable dd : bool.

  (** outputs of one batch of entries in a worker whose initial state is [sw] (answers read off the trace [tr]) *)
  Definition worker_outputs (sw : state (list N)) (nrules : nat) (chunk : list N) (tr : list event) : bool * list (list N) :=
    let '(ok, outs, _) := run (list N) execute true cache_on cmax sw tr in
    (ok, map (entry_out dd) (fst (chop (length chunk) nrules (map snd outs)))).

  (** entry-level workers under the synthetic environment: parent state [sp] with contents [cs], rule objects [rules]
      (parent identities), the copies at the addresses [copy_addrs] gives them *)
  Definition fit_workers_synth (cs : list N) (sp : state (list N)) (rules : list N) (inv : bool) (subs : list N) (n_jobs : nat)
    : bool * list (list N) :=
    let ids := ship_ids (cache sp) rules in
    let addrs := copy_addrs sp rules ids in
    let sw := ship cs sp rules addrs in
    let rcopies := map (fun r => index_of r ids) rules in
    fold_right (fun chunk acc =>
                  let p := worker_prog (length ids) rcopies inv chunk in
                  let tr := synth (list N) execute cache_on cmax sw p in
                  let '(ok, outs) := worker_outputs sw (length rules) chunk tr in
                  (ok && cops_eqb (client_view tr) p && fst acc, outs ++ snd acc))
               (true, []) (wchunks (batch_len (length subs) n_jobs) subs).

  (** rule-level workers: the entry loop runs in the parent; every application is a task of its own, shipped with the
      parent's applier; the parent's cache is not touched *)
  Definition rule_task_synth (cs : list N) (sp : state (list N)) (s r : N) (inv : bool) : bool * list N :=
    let ids := ship_ids (cache sp) [s; r] in
    let addrs := copy_addrs sp [s; r] ids in
    let sw := ship cs sp [s; r] addrs in
    let p := rule_task_prog (index_of s ids) (index_of r ids) inv in
    let tr := synth (list N) execute cache_on cmax sw p in
    let '(ok, outs, _) := run (list N) execute true cache_on cmax sw tr in
    (ok && cops_eqb (client_view tr) p, concat (map snd outs)).
End FitWorkers.

(** the parent before a parallel fit: it has built the rule objects (and possibly run a serial fit on other entries first —
    [warm]: entries processed serially by the same applier, which leaves a filled cache to be shipped) *)
Definition parent_prog (rules : list N) (inv : bool) (warm : list N) : list cop :=
  map CAlloc rules ++ fst (entries_prog (N.of_nat (length rules)) (map N.of_nat (seq 0 (length rules))) inv warm).

Definition contents_of (tr : list event) : list N :=
  flat_map (fun ev => match ev with EAlloc _ c => [c] | _ => [] end) tr.

(** Correspondence entry point for the worker-count cases: for every configuration (entry_n_jobs, parallel_rules, rule_n_jobs)
    the per-entry outputs of fit.  [warm] entries are run serially in the parent first (their results are not reported). *)
Definition run_batch_jobs (c : cfg) (t : table) (rules subs warm : list N) (inv : bool) (jobs : list (nat * bool * nat)) : tok :=
  let ex := tbl_exec t in
  let p0 := parent_prog rules inv warm in
  let tr0 := synth (list N) ex (c_cache c) (c_max c) (init _) p0 in
  let '(ok0, _, sp) := run (list N) ex true (c_cache c) (c_max c) (init _) tr0 in
  let cs := contents_of tr0 in
  let robjs := map N.of_nat (seq 0 (length rules)) in
  tlist (fun j : nat * bool * nat =>
           let '(nj, pr, rj) := j in
           if (1 <? nj)%nat then
             let '(ok, outs) := fit_workers_synth ex (c_cache c) (c_max c) (c_dedupe c) cs sp robjs inv subs nj in
             L [tbool (ok0 && ok); tlist (tlist tN) outs]
           else if pr && (1 <? rj)%nat then
             (* the entry loop in the parent: each entry's substrate is allocated there, every application shipped *)
             let res := map (fun sc =>
                               let tr1 := synth (list N) ex (c_cache c) (c_max c) sp [CAlloc sc] in
                               let '(ok1, _, sp1) := run (list N) ex true (c_cache c) (c_max c) sp tr1 in
                               let sid := next sp in
                               let per := map (fun r => rule_task_synth ex (c_cache c) (c_max c) (cs ++ [sc]) sp1 sid r inv) robjs in
                               (ok1 && forallb fst per, entry_out (c_dedupe c) (map snd per))) subs in
             L [tbool (ok0 && forallb fst res); tlist (tlist tN) (map snd res)]
           else
             L [tbool ok0; tlist (tlist tN) (map (single ex (c_dedupe c) (map (fun r => nth (N.to_nat r) cs 0) robjs) inv) subs)])
        jobs.
