(** C08 — NautyCanonicalizer(node_attrs, edge_attrs) for ANY attribute selection (model/C08_Sel.v): the search is the generic
    pruned search of C08_IR.v instantiated with the selection's signature and label; its result is a permutation of the node
    set, so canonical_form returns the input relabelled injectively onto 1..N whatever is selected (also nothing at all). *)
From Coq Require Import String List NArith ZArith Bool Arith Lia Permutation.
From SK Require Import lib.LGraph lib.IRSortKeys lib.IRCore lib.IRSearch lib.StrJoin.
From SK Require Import model.C08_Model model.C08_Sel proof.C08_Spec proof.C08_Sort proof.C08_IR proof.C08_Faithful proof.C08_Nauty.
From SK Require lib.IRInst.
Import ListNotations.

Section Sel.
Variable na : list nsel.
Variable ea : list esel.

Notation sgs g := (gsearch _ lexleb (sigN_sel na ea g) (rfuel g) (children g) _ strleb (nlabel_sel na ea g) (npartial_sel na g)).
Notation slv g := (leaves2 _ lexleb (sigN_sel na ea g) (rfuel g) (children g)).

Lemma nsearch_sel_gs g fuel : forall P pre a, nsearch_sel na ea g fuel P pre a = sgs g fuel P pre a.
Proof.
  induction fuel as [|f IH]; intros P pre a; [reflexivity|].
  cbn [nsearch_sel gsearch]. unfold nrefine_sel, nvisit_sel, npruned_sel.
  destruct (first_big (refine lexleb (sigN_sel na ea g) (rfuel g) P)); [|reflexivity].
  apply fold_left_ext_in. intros a' v _. destruct (pruned strleb (npartial_sel na g) a' (pre ++ [v])); auto.
Qed.

Lemma spartial_lb_str g pre r : pre <> [] -> strleb (npartial_sel na g pre) (nlabel_sel na ea g (pre ++ r)) = true.
Proof.
  intros Hpre. unfold npartial_sel, nlabel_sel, node_seg_sel. rewrite map_app, join_app by (destruct pre; simpl; congruence).
  rewrite <- app_assoc. apply strleb_common.
  change (repeat 123%N 1000) with (123%N :: repeat 123%N 999).
  destruct (map (node_str_sel na g) r); reflexivity.
Qed.
Theorem nsearch_sel_is_fold g fuel P pre a :
  nsearch_sel na ea g fuel P pre a = fold_left (visit strleb (nlabel_sel na ea g)) (slv g fuel P pre) a.
Proof. rewrite nsearch_sel_gs. apply search_is_fold. apply spartial_lb_str. Qed.

Lemma init_vpart_sel g : vpart (node_ids g) (init_partition_sel na g).
Proof.
  unfold init_partition_sel. destruct (gnodes g) as [|p l] eqn:E.
  - unfold node_ids. rewrite E. split; simpl; auto.
  - apply init_cells_vpart. rewrite E. discriminate.
Qed.

Theorem nauty_perm_sel_leaf g : NoDup (node_ids g) ->
  In (nauty_perm_sel na ea g) (slv g (sfuel g) (init_partition_sel na g) [])
  /\ nauty_label_sel na ea g = Some (nlabel_sel na ea g (nauty_perm_sel na ea g)).
Proof.
  intros Hnd. unfold nauty_perm_sel, nauty_label_sel, nauty_acc_sel. rewrite nsearch_sel_gs.
  destruct (search_best_leaf g (sigN_sel na ea g) _ _ _ (spartial_lb_str g) (init_vpart_sel g) Hnd) as (bp & -> & I). auto.
Qed.

Theorem nauty_perm_sel_perm g : NoDup (node_ids g) -> Permutation (nauty_perm_sel na ea g) (node_ids g).
Proof.
  intros Hnd. apply (search_leaf_perm g (sigN_sel na ea g) _ (init_vpart_sel g) Hnd). apply nauty_perm_sel_leaf. exact Hnd.
Qed.

Theorem faithful_nauty_sel g : NoDup (node_ids g) -> faithful g (canon_nauty_sel na ea g).
Proof. intros Hnd. apply relabel_order_spec; [exact Hnd|apply nauty_perm_sel_perm; exact Hnd]. Qed.

Theorem onto_nauty_sel g : NoDup (node_ids g) -> onto_1N g (canon_nauty_sel na ea g).
Proof. intros Hnd. apply relabel_order_spec; [exact Hnd|apply nauty_perm_sel_perm; exact Hnd]. Qed.
End Sel.

(* the selection GraphCanonicaliser passes is the model of C08_Model *)
Definition NA4 : list nsel := [SEl; SAr; SCh; SHc].
Definition EA2 : list esel := [SOrd; SStd].
Lemma acode_sel_default g v : acode_sel NA4 g v = acode g v.
Proof. unfold acode_sel, acode, NA4. cbn [flat_map ncode1 app]. reflexivity. Qed.
Lemma node_str_sel_default g v : node_str_sel NA4 g v = node_str g v.
Proof. reflexivity. Qed.
Lemma edge_bit_sel_default g ab : edge_bit_sel EA2 g ab = edge_bit g ab.
Proof.
  unfold edge_bit_sel, edge_bit, EA2. destruct (adj g (fst ab) (snd ab)) as [x|]; [|reflexivity].
  cbn [map efield join]. reflexivity.
Qed.
Theorem nlabel_sel_default g p : nlabel_sel NA4 EA2 g p = nlabel g p.
Proof.
  unfold nlabel_sel, nlabel, node_seg_sel, node_seg.
  rewrite (map_ext (node_str_sel NA4 g) (node_str g)) by (intros; apply node_str_sel_default).
  rewrite (map_ext (edge_bit_sel EA2 g) (edge_bit g)) by (intros; apply edge_bit_sel_default). reflexivity.
Qed.

(* non-vacuity: C-O=C under four selections: a relabelling onto 1..3 each time; with nothing selected the label is bare structure *)
Example sel_ex : Permutation (node_ids (canon_nauty_sel [] [] ex_g)) [1%N; 2%N; 3%N]
                 /\ nauty_label_sel [] [] ex_g = Some (lit "||||0:|1:|1:"%string)
                 /\ nauty_perm_sel [SEl] EA2 ex_g <> nauty_perm_sel [SHc; SEl] [] ex_g.
Proof.
  split; [exact (onto_nauty_sel [] [] ex_g (proj2 ex_generic_ids))|].
  split; [vm_compute; reflexivity|vm_compute; discriminate].
Qed.

Print Assumptions faithful_nauty_sel.
Print Assumptions onto_nauty_sel.
Print Assumptions nlabel_sel_default.

(* known finding: with no node attribute selected, graph_signature hashes "||" for the empty graph and for a single node -
   equal signatures although the graphs are not isomorphic (whatever one selects, an injection cannot map one node to none) *)
Definition one_node : graph := LG [(1%N, NA [67%N] false 0 0 None)] [].
Theorem empty_selection_n0_n1 :
  graph_sig_label_sel [] [] (LG [] []) = graph_sig_label_sel [] [] one_node /\ length (gnodes (LG [] [] : graph)) <> length (gnodes one_node)
  /\ graph_sig_label_sel NA4 EA2 (LG [] []) <> graph_sig_label_sel NA4 EA2 one_node.
Proof. split; [vm_compute; reflexivity|]. split; [discriminate|vm_compute; discriminate]. Qed.
Theorem empty_selection_refuted : exists g h : graph,
  graph_sig_label_sel [] [] g = graph_sig_label_sel [] [] h /\ length (gnodes g) <> length (gnodes h)
  /\ graph_sig_label_sel NA4 EA2 g <> graph_sig_label_sel NA4 EA2 h.
Proof. exists (LG [] []), one_node. exact empty_selection_n0_n1. Qed.
Print Assumptions empty_selection_n0_n1.
