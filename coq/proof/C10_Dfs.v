(** C10 — proofs: DFS-style annotated SMILES -> mapped SMILES -> DFS-style is the identity on token strings
    (bracket atoms with trailing map digits, any other characters in between). *)
From Coq Require Import String List NArith ZArith Bool Lia.
From SK Require Import lib.LGraph lib.StrJoin model.C10_Model model.C10_Text model.C10_Dfs.
Import ListNotations.
Local Open Scope N_scope.

Lemma span_stop (p : N -> bool) l c rest : forallb p l = true -> p c = false -> span p (l ++ c :: rest) = (l, c :: rest).
Proof.
  induction l as [|x t IH]; simpl; intros H Hc; [rewrite Hc; reflexivity|]. apply andb_true_iff in H. destruct H as [Hx Ht].
  rewrite Hx, (IH Ht Hc). reflexivity.
Qed.
Lemma span_all (p : N -> bool) l : forallb p l = true -> span p l = (l, []).
Proof. induction l as [|x t IH]; simpl; intros H; [reflexivity|]. apply andb_true_iff in H. destruct H as [Hx Ht]. rewrite Hx, (IH Ht). reflexivity. Qed.
Lemma span_stops (p : N -> bool) l rest : forallb p l = true -> stops p rest = true -> span p (l ++ rest) = (l, rest).
Proof.
  intros H S. destruct rest as [|c r]; [rewrite app_nil_r; apply span_all, H|]. apply span_stop; [exact H|]. simpl in S. apply negb_true_iff, S.
Qed.

Lemma digits_avoid k ds : forallb is_digit ds = true -> (k < 48 \/ 57 < k) -> forallb (fun c => negb (N.eqb c k)) ds = true.
Proof.
  rewrite !forallb_forall. intros H Hk x Hx. specialize (H x Hx). unfold is_digit in H. apply andb_true_iff in H. destruct H as [A B].
  apply N.leb_le in A, B. apply negb_true_iff, N.eqb_neq. lia.
Qed.

Lemma dfs_skip keep l : forall rest, dfs_sub keep (List.length l) (l ++ rest) = dfs_sub keep O rest.
Proof. induction l as [|x t IH]; intros rest; [reflexivity|]. simpl. apply IH. Qed.
Lemma s2d_skip l : forall rest, s2d_sub (List.length l) (l ++ rest) = s2d_sub O rest.
Proof. induction l as [|x t IH]; intros rest; [reflexivity|]. simpl. apply IH. Qed.

Lemma inner_ok_spec inner : inner_ok inner = true ->
  nonempty inner = true /\ forall x, In x inner -> N.eqb x c_lb = false /\ N.eqb x c_rb = false /\ N.eqb x c_colon = false.
Proof.
  unfold inner_ok. intros H. apply andb_true_iff in H. destruct H as [Hne H]. split; [exact Hne|]. rewrite forallb_forall in H.
  intros x Hx. specialize (H x Hx). apply andb_true_iff in H. destruct H as [H H3]. apply andb_true_iff in H. destruct H as [H1 H2].
  apply negb_true_iff in H1, H2, H3. auto.
Qed.
Lemma inner_not_rb inner : inner_ok inner = true -> forallb not_rb inner = true.
Proof.
  intros Hi. apply forallb_forall. intros x Hx. destruct (proj2 (inner_ok_spec inner Hi) x Hx) as (_ & H & _).
  unfold not_rb. rewrite H. reflexivity.
Qed.
Lemma inner_no_colon inner : inner_ok inner = true -> existsb (N.eqb c_colon) inner = false.
Proof.
  intros Hi. destruct (existsb _ inner) eqn:E; [|reflexivity]. exfalso. apply existsb_exists in E. destruct E as (x & Hx & Ex).
  apply N.eqb_eq in Ex. subst x. destruct (proj2 (inner_ok_spec inner Hi) _ Hx) as (_ & _ & H). rewrite N.eqb_refl in H. discriminate.
Qed.

(** one DFS atom through the first pattern *)
Lemma dfs_sub_atom inner ds rest :
  inner_ok inner = true -> digits_ok ds = true -> stops is_digit rest = true ->
  dfs_sub true O (c_lb :: inner ++ c_rb :: ds ++ rest) = (c_lb :: inner ++ [c_colon] ++ ds ++ [c_rb]) ++ dfs_sub true O rest.
Proof.
  intros Hi Hd Hs. pose proof (inner_not_rb inner Hi) as H1. unfold digits_ok in Hd. apply andb_true_iff in Hd. destruct Hd as [Hne Hdig].
  cbn [dfs_sub]. rewrite N.eqb_refl.
  rewrite (span_stop not_rb inner c_rb (ds ++ rest) H1 eq_refl).
  rewrite (span_stops is_digit ds rest Hdig Hs). cbn [fst]. rewrite Hne, (inner_no_colon inner Hi).
  assert (inner <> []) as Hin by (unfold inner_ok in Hi; destruct inner; [discriminate|discriminate]).
  destruct inner as [|i0 it]; [contradiction|].
  f_equal. replace ((i0 :: it) ++ c_rb :: ds ++ rest) with (((i0 :: it) ++ c_rb :: ds) ++ rest) by (rewrite <- app_assoc; reflexivity).
  replace (List.length (i0 :: it) + 1 + List.length ds)%nat with (List.length ((i0 :: it) ++ c_rb :: ds)) by (rewrite app_length; simpl; lia).
  apply dfs_skip.
Qed.

Lemma split_last_colon_atom inner ds : inner_ok inner = true -> digits_ok ds = true ->
  split_last_colon (inner ++ [c_colon] ++ ds) = Some (inner, ds).
Proof.
  intros Hi Hd. unfold split_last_colon. rewrite !rev_app_distr. simpl rev at 2. rewrite <- app_assoc. simpl app at 2.
  unfold digits_ok in Hd. apply andb_true_iff in Hd. destruct Hd as [_ Hdig].
  assert (forallb (fun c => negb (N.eqb c c_colon)) (rev ds) = true) as H.
  { apply forallb_forall. intros x Hx. apply in_rev in Hx. revert x Hx. apply forallb_forall, digits_avoid; [exact Hdig|right; reflexivity]. }
  rewrite (span_stop _ (rev ds) c_colon (rev inner) H) by (rewrite N.eqb_refl; reflexivity). rewrite !rev_involutive. reflexivity.
Qed.

(** one mapped atom through the second pattern; the wildcard loses its asterisk *)
Lemma s2d_sub_atom inner ds rest : inner_ok inner = true -> digits_ok ds = true ->
  s2d_sub O (c_lb :: inner ++ [c_colon] ++ ds ++ [c_rb] ++ rest)
  = (if str_eqb inner [c_ast] then c_lb :: c_rb :: ds else c_lb :: inner ++ [c_rb] ++ ds) ++ s2d_sub O rest.
Proof.
  intros Hi Hd. cbn [s2d_sub]. rewrite N.eqb_refl.
  pose proof Hi as Hi2. unfold inner_ok in Hi2. apply andb_true_iff in Hi2. destruct Hi2 as [Hne _].
  pose proof Hd as Hd2. unfold digits_ok in Hd2. apply andb_true_iff in Hd2. destruct Hd2 as [Hdn Hdd].
  assert (forallb not_rb (inner ++ [c_colon] ++ ds) = true) as H1.
  { rewrite !forallb_app, (inner_not_rb inner Hi). apply (digits_avoid c_rb ds Hdd). right. reflexivity. }
  replace (inner ++ [c_colon] ++ ds ++ [c_rb] ++ rest) with ((inner ++ [c_colon] ++ ds) ++ c_rb :: rest) by (rewrite <- !app_assoc; reflexivity).
  rewrite (span_stop not_rb _ c_rb rest H1 eq_refl), (split_last_colon_atom inner ds Hi Hd), Hne, Hdn, Hdd. cbn [andb]. f_equal.
  replace (List.length (inner ++ [c_colon] ++ ds) + 1)%nat with (List.length ((inner ++ [c_colon] ++ ds) ++ [c_rb])) by (rewrite app_length; simpl; lia).
  replace ((inner ++ [c_colon] ++ ds) ++ c_rb :: rest) with (((inner ++ [c_colon] ++ ds) ++ [c_rb]) ++ rest) by (rewrite <- app_assoc; reflexivity).
  apply s2d_skip.
Qed.

(** the token string after dfs.replace("[]", "[*]") *)
Definition render_tok_star (t : dtok) : str := match t with TW ds => c_lb :: c_ast :: c_rb :: ds | _ => render_tok t end.
Fixpoint render_star (l : list dtok) : str := match l with [] => [] | t :: r => render_tok_star t ++ render_star r end.

Lemma repl_no_lb new l : forall rest, forallb (fun c => negb (N.eqb c c_lb)) l = true ->
  repl_aux s_empty_br new O (l ++ rest) = l ++ repl_aux s_empty_br new O rest.
Proof.
  induction l as [|c t IH]; intros rest H; [reflexivity|]. simpl in H. apply andb_true_iff in H. destruct H as [Hc Ht].
  cbn [app repl_aux starts_with s_empty_br]. apply negb_true_iff in Hc. rewrite N.eqb_sym in Hc. unfold c_lb in Hc. rewrite Hc. simpl. f_equal. apply IH, Ht.
Qed.
Lemma inner_no_lb inner : inner_ok inner = true -> forallb (fun c => negb (N.eqb c c_lb)) inner = true.
Proof.
  intros Hi. apply forallb_forall. intros x Hx. destruct (proj2 (inner_ok_spec inner Hi) x Hx) as (H & _). rewrite H. reflexivity.
Qed.
Lemma digits_no_lb ds : forallb is_digit ds = true -> forallb (fun c => negb (N.eqb c c_lb)) ds = true.
Proof. intros H. apply (digits_avoid c_lb ds H). right. reflexivity. Qed.

Lemma repl_lb_nomatch new x rest : N.eqb x c_rb = false ->
  repl_aux s_empty_br new O (c_lb :: x :: rest) = c_lb :: repl_aux s_empty_br new O (x :: rest).
Proof. intros H. cbn [repl_aux starts_with s_empty_br]. rewrite N.eqb_refl. unfold c_rb in H. rewrite (N.eqb_sym 93 x), H. reflexivity. Qed.
Lemma repl_lb_match new rest :
  repl_aux s_empty_br new O (c_lb :: c_rb :: rest) = new ++ repl_aux s_empty_br new O rest.
Proof. reflexivity. Qed.
Lemma repl_c new c rest : N.eqb c c_lb = false ->
  repl_aux s_empty_br new O (c :: rest) = c :: repl_aux s_empty_br new O rest.
Proof. intros H. cbn [repl_aux starts_with s_empty_br]. unfold c_lb in H. rewrite (N.eqb_sym 91 c), H. reflexivity. Qed.

Lemma toks_ok_TA inner ds r : toks_ok (TA inner ds :: r) = true ->
  inner_ok inner = true /\ digits_ok ds = true /\ str_eqb inner [c_ast] = false /\ stops is_digit (render_toks r) = true /\
  toks_ok r = true.
Proof.
  cbn [toks_ok]. intros H. apply andb_true_iff in H. destruct H as [H Hr]. apply andb_true_iff in H. destruct H as [H Hs].
  apply andb_true_iff in H. destruct H as [H Hst]. apply andb_true_iff in H. destruct H as [Hi Hd]. apply negb_true_iff in Hst. auto.
Qed.
Lemma toks_ok_TW ds r : toks_ok (TW ds :: r) = true ->
  digits_ok ds = true /\ stops is_digit (render_toks r) = true /\ toks_ok r = true.
Proof.
  cbn [toks_ok]. intros H. apply andb_true_iff in H. destruct H as [H Hr]. apply andb_true_iff in H. destruct H as [Hd Hs]. auto.
Qed.
Lemma toks_ok_TC c r : toks_ok (TC c :: r) = true -> N.eqb c c_lb = false /\ toks_ok r = true.
Proof. cbn [toks_ok]. intros H. apply andb_true_iff in H. destruct H as [Hc Hr]. apply negb_true_iff in Hc. auto. Qed.

Theorem replace_toks l : toks_ok l = true -> str_replace s_empty_br s_star_br (render_toks l) = render_star l.
Proof.
  unfold str_replace. induction l as [|[inner ds|ds|c] r IH]; [reflexivity| | |];
    cbn [render_toks render_tok render_star render_tok_star]; intros Hok.
  - destruct (toks_ok_TA _ _ _ Hok) as (Hi & Hd & _ & _ & Hr). unfold digits_ok in Hd. apply andb_true_iff in Hd. destruct Hd as [_ Hdig].
    pose proof (inner_not_rb inner Hi) as Hrb. pose proof (inner_no_lb inner Hi) as Hlb.
    destruct inner as [|i0 it]; [discriminate|].
    assert (N.eqb i0 c_rb = false) as Hi0.
    { simpl in Hrb. apply andb_true_iff in Hrb. destruct Hrb as [H _]. unfold not_rb in H. apply negb_true_iff in H. exact H. }
    replace ((c_lb :: (i0 :: it) ++ c_rb :: ds) ++ render_toks r) with (c_lb :: i0 :: (it ++ [c_rb] ++ ds ++ render_toks r))
      by (simpl; rewrite <- app_assoc; reflexivity).
    rewrite (repl_lb_nomatch s_star_br i0 _ Hi0).
    replace (i0 :: it ++ [c_rb] ++ ds ++ render_toks r) with ((i0 :: it) ++ [c_rb] ++ ds ++ render_toks r) by reflexivity.
    rewrite (repl_no_lb s_star_br (i0 :: it) _ Hlb). rewrite (repl_no_lb s_star_br [c_rb] _ eq_refl).
    rewrite (repl_no_lb s_star_br ds _ (digits_no_lb ds Hdig)). rewrite (IH Hr). simpl. rewrite <- app_assoc. reflexivity.
  - destruct (toks_ok_TW _ _ Hok) as (Hd & _ & Hr). unfold digits_ok in Hd. apply andb_true_iff in Hd. destruct Hd as [_ Hdig].
    replace ((c_lb :: c_rb :: ds) ++ render_toks r) with (c_lb :: c_rb :: (ds ++ render_toks r)) by reflexivity.
    rewrite repl_lb_match. rewrite (repl_no_lb s_star_br ds _ (digits_no_lb ds Hdig)). rewrite (IH Hr). reflexivity.
  - destruct (toks_ok_TC _ _ Hok) as [Hc Hr]. cbn [app]. rewrite (repl_c s_star_br c _ Hc), (IH Hr). reflexivity.
Qed.

Lemma stops_star r : stops is_digit (render_toks r) = true -> stops is_digit (render_star r) = true.
Proof. destruct r as [|[i2 d2|d2|c2] r2]; simpl; auto. Qed.
Theorem dfs_sub_toks l : toks_ok l = true -> dfs_sub true O (render_star l) = render_mapped l.
Proof.
  induction l as [|[inner ds|ds|c] r IH]; [reflexivity| | |]; cbn [render_star render_tok_star render_tok render_mapped render_tok_mapped]; intros Hok.
  - destruct (toks_ok_TA _ _ _ Hok) as (Hi & Hd & _ & Hs & Hr). rewrite <- app_comm_cons, <- app_assoc. cbn [app].
    pose proof (stops_star r Hs) as Hs'.
    rewrite (dfs_sub_atom inner ds (render_star r) Hi Hd Hs'), (IH Hr). reflexivity.
  - destruct (toks_ok_TW _ _ Hok) as (Hd & Hs & Hr).
    pose proof (stops_star r Hs) as Hs'.
    change (c_lb :: c_ast :: c_rb :: ds) with (c_lb :: [c_ast] ++ c_rb :: ds). rewrite <- app_comm_cons, <- app_assoc. cbn [app].
    change (c_lb :: c_ast :: c_rb :: ds ++ render_star r) with (c_lb :: [c_ast] ++ c_rb :: ds ++ render_star r).
    rewrite (dfs_sub_atom [c_ast] ds (render_star r) eq_refl Hd Hs'), (IH Hr). reflexivity.
  - destruct (toks_ok_TC _ _ Hok) as [Hc Hr]. cbn [app dfs_sub]. rewrite Hc, (IH Hr). reflexivity.
Qed.
Theorem s2d_sub_toks l : toks_ok l = true -> s2d_sub O (render_mapped l) = render_toks l.
Proof.
  induction l as [|[inner ds|ds|c] r IH]; [reflexivity| | |]; cbn [render_toks render_tok render_mapped render_tok_mapped]; intros Hok.
  - destruct (toks_ok_TA _ _ _ Hok) as (Hi & Hd & Hst & _ & Hr).
    rewrite <- app_comm_cons, <- !app_assoc.
    rewrite (s2d_sub_atom inner ds (render_mapped r) Hi Hd), Hst, (IH Hr). cbn [app]. f_equal.
  - destruct (toks_ok_TW _ _ Hok) as (Hd & _ & Hr). rewrite <- app_comm_cons, <- !app_assoc.
    rewrite (s2d_sub_atom [c_ast] ds (render_mapped r) eq_refl Hd), (IH Hr). reflexivity.
  - destruct (toks_ok_TC _ _ Hok) as [Hc Hr]. cbn [app s2d_sub]. rewrite Hc, (IH Hr). reflexivity.
Qed.

(** str.replace leaves a string without the pattern alone *)
Lemma repl_absent pat new s : nonempty pat = true -> contains pat s = false -> str_replace pat new s = s.
Proof.
  intros Hp. unfold str_replace. induction s as [|c r IH]; [reflexivity|]. cbn [contains repl_aux]. intros H.
  apply orb_false_iff in H. destruct H as [H1 H2]. rewrite H1. f_equal. apply IH, H2.
Qed.

(** DFS -> SMILES -> DFS on a token string (wildcards written "[]" as DFS style does) that does not contain "[*]" *)
Theorem dfs_roundtrip l : toks_ok l = true -> contains s_star_br (render_toks l) = false ->
  dfs_to_smiles (render_toks l) true = render_mapped l /\ smiles_to_dfs (render_mapped l) = render_toks l /\
  smiles_to_dfs (dfs_to_smiles (render_toks l) true) = render_toks l.
Proof.
  intros Hok H2.
  assert (dfs_to_smiles (render_toks l) true = render_mapped l) as A.
  { unfold dfs_to_smiles. rewrite (replace_toks l Hok). apply dfs_sub_toks, Hok. }
  assert (smiles_to_dfs (render_mapped l) = render_toks l) as B.
  { unfold smiles_to_dfs. rewrite (s2d_sub_toks l Hok). apply (repl_absent s_star_br s_empty_br _ eq_refl H2). }
  split; [exact A|split; [exact B|]]. rewrite A. exact B.
Qed.

(** non-vacuity: the docstring example, "[H]1[]3.C[O]2>>C[O]2.[H]1[]3" *)
Definition ex_dfs : list dtok :=
  [TA (s2l "H") (s2l "1"); TW (s2l "3"); TC 46; TC 67; TA (s2l "O") (s2l "2"); TC 62; TC 62; TC 67; TA (s2l "O") (s2l "2"); TC 46;
   TA (s2l "H") (s2l "1"); TW (s2l "3")].
Example dfs_roundtrip_ex :
  toks_ok ex_dfs = true /\ contains s_star_br (render_toks ex_dfs) = false /\
  render_toks ex_dfs = s2l "[H]1[]3.C[O]2>>C[O]2.[H]1[]3" /\
  dfs_to_smiles (render_toks ex_dfs) true = s2l "[H:1][*:3].C[O:2]>>C[O:2].[H:1][*:3]".
Proof. vm_compute. repeat split. Qed.
(** outside the domain: a mapped atom followed by a ring-closure digit is read as a longer map number *)
Example dfs_roundtrip_needs_stop :
  smiles_to_dfs (dfs_to_smiles (s2l "[C:1]5") true) = s2l "[C]15".
Proof. vm_compute. reflexivity. Qed.
