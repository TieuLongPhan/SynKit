(** C18 — order lemmas: lexicographic order on labels (code points), insertion sort with duplicates for any order
    ([ins_by]), and the model's search as a fold over the unpruned leaf enumeration of lib/IRCore.v. *)
From Coq Require Import List NArith ZArith Bool Arith Lia Permutation.
From SK Require Import lib.IRSortKeys lib.IRCore lib.IRSearch lib.StrJoin model.C18_Model.
From SK Require lib.IRInst.
Import ListNotations.

Lemma lexlebN_total a : forall b, lexlebN a b = true \/ lexlebN b a = true.
Proof.
  induction a as [|x a IH]; intros [|y b]; simpl; auto.
  destruct (N.ltb_spec x y), (N.ltb_spec y x); auto; try lia.
Qed.
Lemma lexlebN_antisym a : forall b, lexlebN a b = true -> lexlebN b a = true -> a = b.
Proof.
  induction a as [|x a IH]; intros [|y b]; simpl; auto; try discriminate.
  destruct (N.ltb_spec x y), (N.ltb_spec y x); try discriminate; try lia.
  intros Ha Hb. assert (x = y) by lia. subst. f_equal. auto.
Qed.
Lemma lexlebN_trans a : forall b c, lexlebN a b = true -> lexlebN b c = true -> lexlebN a c = true.
Proof.
  induction a as [|x a IH]; intros [|y b] [|z c]; simpl; auto; try discriminate.
  destruct (N.ltb_spec x y) as [Hxy|Hxy].
  - (* x < y <= z *)
    intros _ H2. assert (Hxz : (x < z)%N) by (destruct (N.ltb_spec y z), (N.ltb_spec z y); try discriminate; lia).
    apply N.ltb_lt in Hxz. rewrite Hxz. reflexivity.
  - destruct (N.ltb_spec y x); [discriminate|]. assert (x = y) by lia. subst y. intros H1 H2.
    destruct (N.ltb x z); [reflexivity|]. destruct (N.ltb z x); [discriminate|exact (IH _ _ H1 H2)].
Qed.
Lemma lexlebN_nil b : lexlebN [] b = true.
Proof. reflexivity. Qed.

(** Insertion sort that keeps duplicates, for a total, transitive, antisymmetric order: insertions commute, so the result
    depends only on the multiset sorted.  The model's [ins_attr] / [sort_attrs] and [ins_tuple] / [sort_tuples] are
    convertible with [ins_by] / [fold_right ins_by []] at their orders. *)
Section InsSort.
Variables (A : Type) (leb : A -> A -> bool).
Hypothesis leb_total : forall a b, leb a b = true \/ leb b a = true.
Hypothesis leb_trans : forall a b c, leb a b = true -> leb b c = true -> leb a c = true.
Hypothesis leb_antisym : forall a b, leb a b = true -> leb b a = true -> a = b.

Fixpoint ins_by (x : A) (l : list A) : list A :=
  match l with [] => [x] | y :: r => if leb x y then x :: l else y :: ins_by x r end.

Lemma leb_false a b : leb a b = false -> leb b a = true.
Proof. intros H. destruct (leb_total a b); congruence. Qed.

Lemma ins_by_comm x y l : ins_by x (ins_by y l) = ins_by y (ins_by x l).
Proof.
  induction l as [|z l IH]; simpl.
  - destruct (leb x y) eqn:Exy, (leb y x) eqn:Eyx; auto.
    + rewrite (leb_antisym _ _ Exy Eyx). reflexivity.
    + apply leb_false in Exy. congruence.
  - destruct (leb y z) eqn:Eyz, (leb x z) eqn:Exz; simpl; rewrite ?Eyz, ?Exz.
    + destruct (leb x y) eqn:Exy, (leb y x) eqn:Eyx; simpl; rewrite ?Eyz, ?Exz; auto.
      * rewrite (leb_antisym _ _ Exy Eyx). reflexivity.
      * apply leb_false in Exy. congruence.
    + destruct (leb x y) eqn:Exy; simpl; rewrite ?Eyz, ?Exz; auto.
      rewrite (leb_trans _ _ _ Exy Eyz) in Exz. discriminate.
    + destruct (leb y x) eqn:Eyx; simpl; rewrite ?Eyz, ?Exz; auto.
      rewrite (leb_trans _ _ _ Eyx Exz) in Eyz. discriminate.
    + rewrite IH. reflexivity.
Qed.
Lemma isort_perm l l' : Permutation l l' -> fold_right ins_by [] l = fold_right ins_by [] l'.
Proof. induction 1; simpl; auto; try congruence. apply ins_by_comm. Qed.
End InsSort.

(** the search of the model visits exactly the leaves of the unpruned enumeration, in order *)
Definition leaves_of (g : vgraph) : list (list N) :=
  let n := length (vnodes g) in leaves IRInst.lexleb (sig g) (S n) (S n) (init_part g) [].

Lemma canon_search_fold g :
  canon_search g = fold_left (visit lexlebN (label g)) (leaves_of g) (None, []).
Proof.
  unfold canon_search, leaves_of.
  apply (search_is_fold IRInst.lexleb (sig g) (S (length (vnodes g))) lexlebN lexlebN_total lexlebN_trans lexlebN_antisym
           (label g) no_bound).
  intros; reflexivity.
Qed.
