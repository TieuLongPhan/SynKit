(** C18 — the version counters of _CRNGraphBackend / CRNHyperGraph implement exactly "dirty flags": for EVERY script (method edits,
    edits behind the hypergraph's back, creations, reads) the views served are those of a version-free specification in which
    a mutating method marks every analyzer dirty, an edit of a side object marks nothing, and a read rebuilds iff the analyzer is
    dirty or was never read. *)
From Coq Require Import List NArith ZArith Bool Arith Lia.
From SK Require Import model.C18_Model model.C18_BackendModel proof.C18_Graph proof.C18_Backend.
Import ListNotations.

(** (include_rule, include_stoich, the view held -- None: never read or dirty) *)
Definition fstate := (bool * bool * option vgraph)%type.
Definition mark_dirty (a : fstate) : fstate := (fst (fst a), snd (fst a), None).
Fixpoint flag_hist (n : net) (as_ : list fstate) (steps : list hstep) : list vgraph :=
  match steps with
  | [] => []
  | SEdit (EMethod n' _) :: r => flag_hist n' (map mark_dirty as_) r
  | SEdit (ESilent n') :: r => flag_hist n' as_ r
  | SNew bip st :: r => flag_hist n (as_ ++ [(bip, st, None)]) r
  | SRead i :: r =>
      match nth_error as_ i with
      | Some a =>
          let g := match snd a with Some g => g | None => view (fst (fst a)) (snd (fst a)) n end in
          g :: flag_hist n (set_nth i (fst (fst a), snd (fst a), Some g) as_) r
      | None => flag_hist n as_ r
      end
  end.

(** a backend and its flag state agree: clean with the same view, or both due for a rebuild *)
Definition agree (h : hgraph) (b : backend) (a : fstate) : Prop :=
  bbip b = fst (fst a) /\ bst b = snd (fst a) /\
  match bcache b, snd a with
  | Some (g, v), Some g' => v = hver h /\ g = g'
  | Some (g, v), None => (v < hver h)%N
  | None, None => True
  | None, Some _ => False
  end.

Lemma agree_method h n' k b a : agree h b a -> agree (hedit_apply h (EMethod n' k)) b (mark_dirty a).
Proof.
  intros (H1 & H2 & H3). unfold agree, mark_dirty. simpl. repeat split; auto.
  destruct (bcache b) as [[g v]|]; auto. destruct (snd a); [destruct H3; subst|]; lia.
Qed.
Lemma agree_silent h n' b a : agree h b a -> agree (hedit_apply h (ESilent n')) b a.
Proof. intros H. exact H. Qed.

Lemma Forall2_map_r {A B C} (R : A -> C -> Prop) (f : B -> C) l l' : Forall2 (fun a b => R a (f b)) l l' -> Forall2 R l (map f l').
Proof. induction 1; simpl; constructor; auto. Qed.

Lemma Forall2_set_nth2 {A B} (R : A -> B -> Prop) l l' : Forall2 R l l' -> forall i a b, R a b ->
  Forall2 R (set_nth i a l) (set_nth i b l').
Proof. induction 1; intros [|i] a b Hr; simpl; constructor; auto. Qed.

Theorem backend_is_dirty_flags : forall steps h bs as_,
  Forall2 (agree h) bs as_ -> run_hist (h, bs) steps = flag_hist (hnet h) as_ steps.
Proof.
  induction steps as [|st steps IH]; intros h bs as_ Hrel; [reflexivity|].
  destruct st as [[n' k|n']|bip st|i]; simpl.
  - apply (IH (hedit_apply h (EMethod n' k))).
    apply Forall2_map_r. eapply Forall2_impl'; [|exact Hrel]. intros b a Ha. apply agree_method. exact Ha.
  - apply (IH (hedit_apply h (ESilent n'))). exact Hrel.
  - apply IH. apply Forall2_app; auto. constructor; [|constructor]. repeat split; auto.
  - pose proof (Forall2_nth_error _ _ _ Hrel i) as Hi.
    destruct (nth_error bs i) as [b|] eqn:Eb, (nth_error as_ i) as [a|] eqn:Ea; try contradiction; [|apply IH; auto].
    destruct Hi as (H1 & H2 & H3).
    assert (Hg : snd (be_G b h) = match snd a with Some g => g | None => view (fst (fst a)) (snd (fst a)) (hnet h) end /\
                 agree h (fst (be_G b h)) (fst (fst a), snd (fst a), Some (snd (be_G b h)))).
    { unfold be_G. destruct (bcache b) as [[g v]|] eqn:Ec.
      - destruct (snd a) as [g'|] eqn:Es.
        + destruct H3 as [-> ->]. rewrite N.eqb_refl. simpl. split; auto. unfold agree. simpl. rewrite Ec. repeat split; auto.
        + destruct (N.eqb_spec v (hver h)) as [E|_]; [lia|]. simpl. rewrite H1, H2. split; auto.
          unfold agree. simpl. repeat split; auto.
      - destruct (snd a); [contradiction|]. simpl. rewrite H1, H2. split; auto. unfold agree. simpl. repeat split; auto. }
    destruct Hg as [Hg Ha]. rewrite Hg. f_equal. rewrite <- Hg. apply (IH h).
    apply Forall2_set_nth2; auto.
Qed.

Corollary backend_history_flags n0 v0 steps : run_hist (HG n0 v0, []) steps = flag_hist n0 [] steps.
Proof. apply (backend_is_dirty_flags steps (HG n0 v0) [] []). constructor. Qed.
