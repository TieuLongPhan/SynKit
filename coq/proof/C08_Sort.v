(** C08 — facts about the model's stable insertion sort [sort_by] and the relabelling tables. *)
From Coq Require Import List NArith ZArith Bool Arith Lia Permutation.
From SK Require Import lib.LGraph lib.IRSortKeys model.C08_Model proof.C08_Spec.
From SK Require lib.IRInst.
Import ListNotations.

Lemma lexleb_refl a : lexleb a a = true.
Proof. destruct (IRInst.lexleb_total a a); auto. Qed.

Section SortBy.
Context {A : Type} (key : A -> list Z).

Lemma insert_by_perm x l : Permutation (insert_by key x l) (x :: l).
Proof.
  induction l as [|y r IH]; simpl; auto.
  destruct (lexleb (key x) (key y)); auto.
  eapply perm_trans; [apply perm_skip; exact IH|apply perm_swap].
Qed.
Lemma sort_by_perm l : Permutation (sort_by key l) l.
Proof.
  induction l as [|x l IH]; simpl; auto.
  eapply perm_trans; [apply insert_by_perm|]. auto.
Qed.
Lemma sort_by_in l x : In x (sort_by key l) <-> In x l.
Proof. split; apply Permutation_in; [|apply Permutation_sym]; apply sort_by_perm. Qed.
Lemma sort_by_length l : length (sort_by key l) = length l.
Proof. apply Permutation_length, sort_by_perm. Qed.

(* sortedness w.r.t. the key order *)
Inductive ksorted : list A -> Prop :=
| ks_nil : ksorted []
| ks_cons x l : ksorted l -> (forall y, In y l -> lexleb (key x) (key y) = true) -> ksorted (x :: l).

Lemma insert_by_sorted x l : ksorted l -> ksorted (insert_by key x l).
Proof.
  induction 1 as [|y r Hs IH Hy]; simpl.
  - constructor; [constructor|intros ? []].
  - destruct (lexleb (key x) (key y)) eqn:E.
    + constructor; [constructor; auto|].
      intros z [<-|Hz]; auto. eapply IRInst.lexleb_trans; [exact E|auto].
    + constructor; auto. intros z Hz. apply (Permutation_in _ (insert_by_perm x r)) in Hz.
      destruct Hz as [<-|Hz]; auto.
      destruct (IRInst.lexleb_total (key x) (key y)); congruence.
Qed.
Lemma sort_by_sorted l : ksorted (sort_by key l).
Proof. induction l; simpl; [constructor|apply insert_by_sorted; auto]. Qed.

(* two sorted lists with the same elements and pairwise distinct keys are equal *)
Lemma ksorted_unique l : ksorted l -> forall l', ksorted l' -> Permutation l l' ->
  (forall x y, In x l -> In y l -> key x = key y -> x = y) -> l = l'.
Proof.
  induction 1 as [|x l Hs IH Hx]; intros l' Hs' Hp Hinj.
  - apply Permutation_nil in Hp. auto.
  - destruct Hs' as [|z l' Hs' Hz]; [apply Permutation_sym, Permutation_nil in Hp; discriminate|].
    assert (x = z).
    { assert (Ix : In x (z :: l')) by (apply (Permutation_in _ Hp); left; auto).
      assert (Iz : In z (x :: l)) by (apply (Permutation_in _ (Permutation_sym Hp)); left; auto).
      destruct Ix as [E|Ix]; auto. destruct Iz as [E|Iz]; auto.
      apply Hinj; [left; auto|right; auto|].
      apply IRInst.lexleb_antisym; auto. }
    subst z. f_equal. apply IH; auto.
    + eapply Permutation_cons_inv; eauto.
    + intros; apply Hinj; auto; right; auto.
Qed.

Theorem sort_by_perm_eq l l' : Permutation l l' ->
  (forall x y, In x l -> In y l -> key x = key y -> x = y) -> sort_by key l = sort_by key l'.
Proof.
  intros Hp Hinj. apply ksorted_unique; try apply sort_by_sorted.
  - eapply perm_trans; [apply sort_by_perm|]. eapply perm_trans; [exact Hp|]. apply Permutation_sym, sort_by_perm.
  - intros x y Hx Hy. apply Hinj; apply sort_by_in; auto.
Qed.
End SortBy.

Lemma sort_by_map {A B} (f : A -> B) (key : B -> list Z) (l : list A) :
  sort_by key (map f l) = map f (sort_by (fun x => key (f x)) l).
Proof.
  induction l as [|x l IH]; simpl; auto. rewrite IH.
  generalize (sort_by (fun x0 => key (f x0)) l). intros r.
  induction r as [|y r IHr]; simpl; auto.
  destruct (lexleb (key (f x)) (key (f y))); simpl; auto. rewrite IHr. auto.
Qed.

(* ---------------- relabelling tables ---------------- *)

Lemma assoc_combine_notin (x : N) (order vals : list N) : ~ In x order -> assoc x (combine order vals) = None.
Proof.
  revert vals. induction order as [|y order IH]; intros [|v vals] H; simpl; auto.
  destruct (N.eqb_spec x y) as [->|Hne]; [exfalso; apply H; left; auto|].
  apply IH. intro I. apply H. right. auto.
Qed.

Lemma map_apply_combine (order : list N) : forall vals : list N, NoDup order -> length vals = length order ->
  map (apply_map (combine order vals)) order = vals.
Proof.
  induction order as [|x order IH]; intros [|v vals] Hnd Hl; simpl in *; try discriminate; auto.
  inversion Hnd as [|? ? Hx Hnd']; subst.
  unfold apply_map at 1. simpl. rewrite N.eqb_refl. f_equal.
  rewrite <- (IH vals Hnd') at 2 by lia.
  apply map_ext_in. intros y Hy. unfold apply_map. simpl.
  destruct (N.eqb_spec y x) as [->|Hne]; [contradiction|reflexivity].
Qed.

Lemma NoDup_map_inj_on f l : NoDup (map f l) -> inj_on f l.
Proof.
  induction l as [|a l IH]; simpl; intros Hnd x y Hx Hy E; [contradiction|].
  inversion Hnd as [|? ? Ha Hnd']; subst.
  destruct Hx as [<-|Hx], Hy as [<-|Hy]; auto.
  - exfalso. apply Ha. rewrite E. apply in_map. auto.
  - exfalso. apply Ha. rewrite <- E. apply in_map. auto.
  - apply IH; auto.
Qed.

Lemma NoDup_targets n : NoDup (map N.of_nat (seq 1 n)).
Proof.
  apply FinFun.Injective_map_NoDup; [|apply seq_NoDup].
  intros a b E. apply Nnat.Nat2N.inj. exact E.
Qed.

Lemma mapping_of_map order : NoDup order ->
  map (apply_map (mapping_of order)) order = map N.of_nat (seq 1 (length order)).
Proof. intros H. apply map_apply_combine; auto. rewrite map_length, seq_length. auto. Qed.

Lemma mapping_of_inj order : NoDup order -> inj_on (apply_map (mapping_of order)) order.
Proof. intros H. apply NoDup_map_inj_on. rewrite mapping_of_map by auto. apply NoDup_targets. Qed.

Lemma inj_on_perm f l l' : Permutation l l' -> inj_on f l -> inj_on f l'.
Proof.
  intros Hp H x y Hx Hy. apply H; eapply Permutation_in; try apply Permutation_sym; eauto.
Qed.
