(** C09 — the CanonRSMI state machine (model/C09_State.v): a call never sees the previous state; the properties after a
    successful call are exactly the result of [canonicalise_with]; after a failing call nothing of a canonical product is left. *)
From Coq Require Import List NArith ZArith Bool.
From SK Require Import lib.LGraph model.C01_Model model.C09_Model model.C09_State proof.C09_Main.
Import ListNotations.

(** no stale state: whatever the object went through before (earlier reactions, failing calls, results edited in place by the
    caller), the state after canonicalise depends on the input of THIS call only *)
Theorem cstep_fresh canonG parsed st st' : cstep canonG parsed st = cstep canonG parsed st'.
Proof. reflexivity. Qed.

(** a successful call: the stored properties are exactly the result of canonicalise_with on the canonical reactant graph *)
Theorem cstep_done canonG G H st : cs_done (cstep canonG (Some (G, H)) st) = true <->
  exists Gc' prs Hc', canonicalise_with (canonG G) H = Some (Gc', prs, Hc') /\
    cstep canonG (Some (G, H)) st = CS (Some G) (Some H) (Some Gc') (Some prs) (Some Hc') true.
Proof.
  unfold cstep, canonicalise_with. destruct (remap_graph H (node_map_of (canonG G) H (aam_pairs (canonG G) H))) as [Hc|]; simpl; split.
  - intros _. eexists _, _, _. split; reflexivity.
  - intros _. reflexivity.
  - discriminate.
  - intros (? & ? & ? & E & _). discriminate.
Qed.

(** a failing call (no shared atom map): no canonical product graph, no canonical_rsmi, mapping_pairs = [], and the raw graphs
    of THIS call are stored *)
Theorem cstep_failed canonG G H st : canonicalise_with (canonG G) H = None ->
  cstep canonG (Some (G, H)) st = CS (Some G) (Some H) (Some (canonG G)) (Some []) None false.
Proof.
  unfold cstep, canonicalise_with. destruct (remap_graph H (node_map_of (canonG G) H (aam_pairs (canonG G) H))) as [Hc|] eqn:E; [discriminate|].
  intros _. f_equal. f_equal. unfold remap_graph, node_map_of in E.
  destruct (aam_pairs (canonG G) H); [reflexivity|discriminate].
Qed.

(** the three back-ends the histories run are the functions of the canonicaliser theorems *)
Theorem cstep_backends ranks G H :
  (cs_done (cstep (canonG_wl ranks) (Some (G, H)) cs_init) = true ->
     option_map (fun r => (Some (fst (fst r)), Some (snd (fst r)), Some (snd r))) (canonicalise_wl ranks G H)
     = Some (cs_Gc (cstep (canonG_wl ranks) (Some (G, H)) cs_init), cs_pairs (cstep (canonG_wl ranks) (Some (G, H)) cs_init),
             cs_Hc (cstep (canonG_wl ranks) (Some (G, H)) cs_init))) /\
  (cs_done (cstep canonG_nauty (Some (G, H)) cs_init) = true ->
     option_map (fun r => (Some (fst (fst r)), Some (snd (fst r)), Some (snd r))) (canonicalise_nauty G H)
     = Some (cs_Gc (cstep canonG_nauty (Some (G, H)) cs_init), cs_pairs (cstep canonG_nauty (Some (G, H)) cs_init),
             cs_Hc (cstep canonG_nauty (Some (G, H)) cs_init))).
Proof.
  split; intros D; apply cstep_done in D; destruct D as (Gc' & prs & Hc' & E & S); rewrite S; simpl.
  - unfold canonicalise_wl. unfold canonG_wl in E. rewrite E. reflexivity.
  - unfold canonicalise_nauty. unfold canonG_nauty in E. rewrite E. reflexivity.
Qed.

(** non-vacuity: a successful and a failing call (the product side shares no number with the reactant side) *)
Definition ex_Hx : mgraph := LG [(8%N, GN 70%N false 4 0 None 8)] [].
Example ex_cstep :
  cs_done (cstep canonG_nauty (Some (ex_G, ex_H)) cs_init) = true /\
  cs_done (cstep canonG_nauty (Some (ex_G, ex_Hx)) (cstep canonG_nauty (Some (ex_G, ex_H)) cs_init)) = false /\
  cs_Hc (cstep canonG_nauty (Some (ex_G, ex_Hx)) (cstep canonG_nauty (Some (ex_G, ex_H)) cs_init)) = None /\
  cs_pairs (cstep canonG_nauty (Some (ex_G, ex_Hx)) cs_init) = Some [].
Proof. vm_compute. repeat split. Qed.

(** exactly when does CanonRSMI.canonicalise raise ValueError("node_map must be non-empty")?  When the two sides share no atom
    map - in particular for every reaction without any map number, because expand_aam gives all atoms different fresh numbers
    (C09_expand_sides_spec). *)
Theorem canonicalise_fails_iff (G H Gc : mgraph) (order : list N) :
  parsed G -> parsed H -> enumerates order G -> C09_Canon.relabelled_by (sigma_of order) G Gc ->
  (canonicalise_with Gc H = None <-> ~ exists s, In s (node_ids G) /\ In s (node_ids H)).
Proof.
  intros (WG & AG & PG) (WH & AH & PH) (O1 & I1) R1. split.
  - intros E Hs. destruct (C09_Canon.canonicalise_with_spec G H Gc order WG WH AG AH PG PH O1 I1 R1 Hs) as (Hc & E' & _). congruence.
  - intros Hn. unfold canonicalise_with.
    assert (P : aam_pairs Gc H = []).
    { destruct (aam_pairs Gc H) as [|[a b] l] eqn:E; [reflexivity|]. exfalso. apply Hn. exists b.
      assert (I : In (a, b) (aam_pairs Gc H)) by (rewrite E; left; reflexivity).
      apply (C09_Canon.pairs_in G H Gc order WG WH AG AH PG PH R1) in I. tauto. }
    rewrite P. reflexivity.
Qed.
Example ex_fails : canonicalise_with (canonG_nauty ex_G) ex_Hx = None /\ ~ exists s, In s (node_ids ex_G) /\ In s (node_ids ex_Hx).
Proof. split; [vm_compute; reflexivity|]. intros (s & I1 & I2). simpl in I1, I2. intuition (subst; discriminate). Qed.
