(** C18 — non-vacuity of the theorems on attribute selections read back from the label (props/C18.v: C18_labelA_read, C18_attr_count_exact, C18_attr_orbits_exact,
    C18_attr_invariant_full, C18_net_attr_count_exact, C18_spattr_count_exact) on the running example A >> C, B >> C. *)
From Coq Require Import List NArith ZArith Bool Arith Lia Permutation.
From SK Require Import lib.IRSortKeys lib.IRCore lib.IRSearch model.C18_Model model.C18_AttrModel model.C18_SpAttrModel
  proof.C18_Spec proof.C18_Graph proof.C18_Label proof.C18_View proof.C18_NetBip proof.C18_SpAttr proof.C18_Attr proof.C18_AttrEquiv
  proof.C18_Examples proof.C18_LabelA.
Import ListNotations.
Set Default Timeout 40.

Lemma loopfree_g1 : forall v, find_arc g1 v v = None.
Proof. apply (view_bip_loopfree true n1). exact (proj1 ex_net_ok). Qed.

(** the premises of the bipartite theorems hold for (g1, g2, fx) under the selection (bipartite; stoich); the search finds 2 minimal
    leaves on both sides, the second being the image of the first under the swap *)
Definition sA1 := canon_searchA g1 lt1 [NBip] [EStoich].
Definition labA1 := match fst sA1 with Some lp => fst lp | None => [] end.
Definition pA1 := match fst sA1 with Some lp => snd lp | None => [] end.
Lemma bestA1 : fst (canon_searchA g1 lt1 [NBip] [EStoich]) = Some (labA1, pA1).
Proof.
  pose proof (proj1 (canon_isoA g1 lt1 [NBip] [EStoich] wf_g1)) as H. unfold labA1, pA1, sA1.
  destruct (fst (canon_searchA g1 lt1 [NBip] [EStoich])) as [[l p]|]; [reflexivity|contradiction].
Qed.
Lemma leavesA1 : snd (canon_searchA g1 lt1 [NBip] [EStoich]) = [[0;0;1;2;4;3]; [1;1;0;2;3;4]]%N.
Proof. vm_compute. reflexivity. Qed.
Example ex_labelA_premises : wf g1 /\ kinds_ok g1 /\ arcs_ok g1 /\ nolabel [NBip] /\ (In NKind [NBip] \/ In NBip [NBip]) /\
  (forall v, find_arc g1 v v = None) /\ geq g2 (relabel fx g1) /\ fst sA1 = Some (labA1, pA1) /\ length (snd sA1) = 2.
Proof.
  split; [exact wf_g1|]. split; [exact kinds_g1|]. split; [exact arcs_g1|]. split; [repeat constructor; discriminate|].
  split; [right; left; reflexivity|]. split; [exact loopfree_g1|]. split; [exact geq_g2|]. split; [exact bestA1|exact (f_equal (@length _) leavesA1)].
Qed.
Example ex_attr_count_exact : exists s, is_autG g1 (nvA g1 lt1 [NBip]) (evA [EStoich]) s /\ nth 1 (snd sA1) [] = map s pA1.
Proof.
  destruct ex_labelA_premises as (Hw & Hk & Ha & Hnl & Hne & Hloop & _).
  destruct (attr_count_exact g1 lt1 [NBip] [EStoich] Hw Hk Ha Hnl Hne labA1 pA1 Hloop bestA1) as [_ Miff].
  apply (proj1 (Miff (nth 1 (snd sA1) []))). unfold sA1. rewrite leavesA1. right. left. reflexivity.
Qed.
(** two leaves with the same label: labelA_read applies to the two minimal leaves *)
Example ex_labelA_read : labelA g1 lt1 [NBip] [EStoich] (nth 0 (snd sA1) []) = labelA g1 lt1 [NBip] [EStoich] (nth 1 (snd sA1) []) /\
  nth 0 (snd sA1) [] <> nth 1 (snd sA1) [].
Proof. unfold sA1. rewrite leavesA1. split; [vm_compute; reflexivity|discriminate]. Qed.
(** species view: A >> C, B >> C has no self-loop in the species view, coefficients are >= -1 *)
Lemma loopfree_b g : forallb (fun e => negb (N.eqb (asrc e) (adst e))) (varcs g) = true -> forall v, find_arc g v v = None.
Proof.
  intros H v. destruct (find_arc g v v) as [a|] eqn:E; auto. exfalso. unfold find_arc in E. apply find_arc_l_some in E.
  rewrite forallb_forall in H. specialize (H _ E). unfold asrc, adst in H. simpl in H. rewrite N.eqb_refl in H. discriminate.
Qed.
Lemma arcsS_okb g : forallb (fun e => Z.leb (-1) (fst (aattr e)) && Z.leb (-1) (snd (aattr e))) (varcs g) = true -> arcsS_ok g.
Proof.
  intros H e He. rewrite forallb_forall in H. specialize (H _ He). apply andb_prop in H. destruct H as [H1 H2].
  apply Z.leb_le in H1, H2. auto.
Qed.
Definition gS1 := view_spS n1.
Example ex_spattr_premises : wf gS1 /\ kinds_okb gS1 = true /\ arcsS_ok gS1 /\
  (forall v, find_arc gS1 v v = None) /\ length (snd (canon_searchS gS1 [] [NKind] [SR; SP])) = 2.
Proof.
  split; [apply view_spS_wf; exact (proj2 ex_view_wf)|]. split; [vm_compute; reflexivity|].
  split; [apply arcsS_okb; vm_compute; reflexivity|]. split; [apply loopfree_b; vm_compute; reflexivity|vm_compute; reflexivity].
Qed.
