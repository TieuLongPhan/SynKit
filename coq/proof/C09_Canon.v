(** C09 — CanonRSMI.canonicalise at graph level: the canonical reactant and product graphs are the input graphs
    relabelled by ONE injective map (canonical ids on the reactant atoms, fresh ids after them on product atoms
    without partner), with atom_map := node id. *)
From Coq Require Import List NArith ZArith Bool Arith Lia Permutation.
From SK Require Import lib.LGraph lib.C01_GraphLemmas model.C01_Model model.C09_Model proof.C09_Lists.
From SK Require model.C08_Model lib.Mono.
Import ListNotations.

(** [Gc] is [G] relabelled by [s]; the node list may be in another insertion order (wl rebuilds the graph) *)
Definition relabelled_by (s : N -> N) (G Gc : mgraph) : Prop :=
  Permutation (gnodes Gc) (gnodes (relabel s G)) /\ gedges Gc = gedges (relabel s G).
(** atom maps are positive: node ids (= atom maps) are not 0 *)
Definition pos_ids (G : mgraph) : Prop := forall n, In n (node_ids G) -> n <> 0%N.

(** the relabelling: canonical position for the atoms in [order], then [extras] numbered after them; every other
    number is moved out of the way (this makes the map injective on ALL numbers, not only on the atoms) *)
Definition tau_list (order extras : list N) : list (N * N) :=
  C08_Model.mapping_of order ++ map swap (extra_pairs (N.of_nat (length order) + 1) extras).
Definition tau (order extras : list N) (n : N) : N :=
  match assoc n (tau_list order extras) with
  | Some x => x
  | None => (n + N.of_nat (length order + length extras) + 1)%N
  end.

Lemma mapping_of_keys order : map fst (C08_Model.mapping_of order) = order.
Proof. unfold C08_Model.mapping_of. apply map_fst_combine. rewrite map_length, seq_length. reflexivity. Qed.
Lemma mapping_of_vals order : map snd (C08_Model.mapping_of order) = map N.of_nat (seq 1 (length order)).
Proof. unfold C08_Model.mapping_of. apply map_snd_combine. rewrite map_length, seq_length. reflexivity. Qed.
Lemma extra_pairs_keys first extras : map snd (extra_pairs first extras) = extras.
Proof. unfold extra_pairs. apply map_snd_combine. rewrite map_length, seq_length. reflexivity. Qed.
Lemma extra_pairs_vals first extras :
  map fst (extra_pairs first extras) = map (fun i => (first + N.of_nat i)%N) (seq 0 (length extras)).
Proof. unfold extra_pairs. apply map_fst_combine. rewrite map_length, seq_length. reflexivity. Qed.
Lemma map_fst_swap l : map fst (map swap l) = map snd l.
Proof. rewrite map_map. reflexivity. Qed.
Lemma map_snd_swap l : map snd (map swap l) = map fst l.
Proof. rewrite map_map. reflexivity. Qed.

Lemma tau_list_vals order extras :
  map snd (tau_list order extras) =
  map N.of_nat (seq 1 (length order)) ++ map (fun i => (N.of_nat (length order) + 1 + N.of_nat i)%N) (seq 0 (length extras)).
Proof. unfold tau_list. rewrite map_app, mapping_of_vals, map_snd_swap, extra_pairs_vals. reflexivity. Qed.

Lemma tau_vals_nodup order extras : NoDup (map snd (tau_list order extras)).
Proof.
  rewrite tau_list_vals. apply Mono.nodup_app.
  - apply FinFun.Injective_map_NoDup; [intros a b E; apply Nat2N.inj; exact E|apply seq_NoDup].
  - apply FinFun.Injective_map_NoDup; [intros a b E; lia|apply seq_NoDup].
  - intros y I1 I2. apply in_map_iff in I1. destruct I1 as (i & <- & Ii). apply in_seq in Ii.
    apply in_map_iff in I2. destruct I2 as (j & E & Ij). lia.
Qed.
Lemma tau_vals_bound order extras k x : In (k, x) (tau_list order extras) -> (x <= N.of_nat (length order + length extras))%N.
Proof.
  intros I. assert (I' : In x (map snd (tau_list order extras))) by (change x with (snd (k, x)); apply in_map; exact I).
  rewrite tau_list_vals in I'. apply in_app_or in I'. destruct I' as [I'|I']; apply in_map_iff in I'; destruct I' as (i & <- & Ii); apply in_seq in Ii; lia.
Qed.

Theorem tau_injective order extras a b : tau order extras a = tau order extras b -> a = b.
Proof.
  unfold tau. destruct (assoc a (tau_list order extras)) as [x|] eqn:Ea; destruct (assoc b (tau_list order extras)) as [y|] eqn:Eb.
  - intros ->. apply assoc_in in Ea. apply assoc_in in Eb. eapply snd_inj; eauto. apply tau_vals_nodup.
  - apply assoc_in in Ea. apply tau_vals_bound in Ea. lia.
  - apply assoc_in in Eb. apply tau_vals_bound in Eb. lia.
  - lia.
Qed.

Lemma tau_sigma order extras n : In n order -> tau order extras n = sigma_of order n.
Proof.
  intros I. unfold tau, tau_list, sigma_of, C08_Model.apply_map. rewrite assoc_app.
  destruct (assoc n (C08_Model.mapping_of order)) eqn:E; [reflexivity|].
  exfalso. apply assoc_none in E. apply E. rewrite mapping_of_keys. exact I.
Qed.

Lemma tau_pos order extras n : tau order extras n <> 0%N.
Proof.
  unfold tau. destruct (assoc n (tau_list order extras)) as [x|] eqn:E; [|lia].
  apply assoc_in in E. assert (I : In x (map snd (tau_list order extras))) by (change x with (snd (n, x)); apply in_map; exact E).
  rewrite tau_list_vals in I. apply in_app_or in I. destruct I as [I|I]; apply in_map_iff in I; destruct I as (i & <- & Ii); apply in_seq in Ii; lia.
Qed.

(** the numbers given to the partner-less product atoms themselves: first, first+1, ... in list order *)
Lemma assoc_extra_nth first E : NoDup E -> forall i, (i < length E)%nat ->
  assoc (nth i E 0%N) (map swap (extra_pairs first E)) = Some (first + N.of_nat i)%N.
Proof.
  intros Hnd i Hi. apply assoc_nodup_in.
  - rewrite map_fst_swap, extra_pairs_keys. exact Hnd.
  - apply in_map_iff. exists ((first + N.of_nat i)%N, nth i E 0%N). split; [reflexivity|].
    unfold extra_pairs. set (g := fun i0 : nat => (first + N.of_nat i0)%N).
    assert (L : length (map g (seq 0 (length E))) = length E) by (rewrite map_length, seq_length; reflexivity).
    replace ((first + N.of_nat i)%N, nth i E 0%N) with (nth i (combine (map g (seq 0 (length E))) E) (0%N, 0%N)).
    + apply nth_In. rewrite combine_length, L. lia.
    + rewrite combine_nth by exact L. f_equal.
      rewrite (nth_map g _ i 0%N 0%nat), seq_nth by (rewrite ?seq_length; exact Hi). reflexivity.
Qed.
Lemma tau_extra order extras i : NoDup extras -> (i < length extras)%nat -> ~ In (nth i extras 0%N) order ->
  tau order extras (nth i extras 0%N) = (N.of_nat (length order) + 1 + N.of_nat i)%N.
Proof.
  intros Hnd Hi Hn. unfold tau, tau_list. rewrite assoc_app.
  assert (E : assoc (nth i extras 0%N) (C08_Model.mapping_of order) = None) by (apply assoc_none; rewrite mapping_of_keys; exact Hn).
  rewrite E, (assoc_extra_nth _ extras Hnd i Hi). reflexivity.
Qed.

Lemma in_gnodes_label {A B} (g : lgraph A B) p : NoDup (node_ids g) -> In p (gnodes g) -> label g (fst p) = Some (snd p).
Proof. intros Hnd I. destruct p as [k a]. apply assoc_nodup_in; auto. Qed.

Lemma amap_lookup (s : N -> N) (G X : mgraph) : wf G -> amap_id G -> pos_ids G -> relabelled_by s G X ->
  forall k a, zassoc k (amap_table X) = Some a <-> exists n, In n (node_ids G) /\ k = Z.of_N n /\ a = s n.
Proof.
  intros (Hnd & _) AG PG (RP & _) k a.
  assert (Ham : forall p, In p (gnodes G) -> g_amap (snd p) = Z.of_N (fst p)).
  { intros p I. apply (AG (fst p) (snd p)). apply in_gnodes_label; auto. }
  assert (Hkeys : Permutation (map (fun q : N * gnode => g_amap (snd q)) (gnodes X)) (map Z.of_N (node_ids G))).
  { eapply Permutation_trans; [apply Permutation_map; exact RP|]. unfold relabel, node_ids. simpl. rewrite !map_map. simpl.
    erewrite map_ext_in; [apply Permutation_refl|]. intros p I. simpl. apply Ham. exact I. }
  assert (Hnd' : NoDup (map (fun q : N * gnode => g_amap (snd q)) (gnodes X))).
  { eapply Permutation_NoDup; [apply Permutation_sym; exact Hkeys|]. apply FinFun.Injective_map_NoDup; [intros x y E; apply N2Z.inj; exact E|exact Hnd]. }
  assert (Hpos : forall q, In q (gnodes X) -> (0 < g_amap (snd q))%Z).
  { intros q I. assert (I' : In (g_amap (snd q)) (map Z.of_N (node_ids G))).
    { eapply Permutation_in; [exact Hkeys|]. apply (in_map (fun q : N * gnode => g_amap (snd q))). exact I. }
    apply in_map_iff in I'. destruct I' as (n & E & In'). specialize (PG n In'). lia. }
  rewrite (amap_table_spec X Hpos Hnd').
  assert (Hk : NoDup (map fst (map (fun p : N * gnode => (g_amap (snd p), fst p)) (gnodes X)))) by (rewrite map_map; exact Hnd').
  split.
  - intros E. apply zassoc_in in E. apply in_map_iff in E. destruct E as (q & Eq & Iq). inversion Eq; subst.
    assert (Iq' : In q (gnodes (relabel s G))) by (eapply Permutation_in; [exact RP|exact Iq]).
    unfold relabel in Iq'. simpl in Iq'. apply in_map_iff in Iq'. destruct Iq' as (p & <- & Ip). simpl.
    exists (fst p). split; [unfold node_ids; apply in_map; exact Ip|]. split; [apply Ham; exact Ip|reflexivity].
  - intros (n & In' & -> & ->). apply zassoc_nodup_in; [exact Hk|].
    unfold node_ids in In'. apply in_map_iff in In'. destruct In' as (p & <- & Ip).
    apply in_map_iff. exists (s (fst p), snd p). split; [simpl; f_equal; apply Ham; exact Ip|].
    eapply Permutation_in; [apply Permutation_sym; exact RP|]. unfold relabel. simpl. apply in_map_iff. exists p. auto.
Qed.

Lemma relabelled_id (H : mgraph) : relabelled_by (fun n => n) H H.
Proof.
  split; unfold relabel; simpl.
  - rewrite (map_ext _ (fun p => p)) by (intros [? ?]; reflexivity). rewrite map_id. apply Permutation_refl.
  - rewrite (map_ext _ (fun e => e)) by (intros [[? ?] ?]; reflexivity). rewrite map_id. reflexivity.
Qed.

Lemma node_map_of_ne Gc H l : l <> [] ->
  node_map_of Gc H l = l ++ extra_pairs (N.of_nat (length (gnodes Gc)) + 1) (extra_nodes H l).
Proof. destruct l; [congruence|reflexivity]. Qed.
Lemma remap_graph_ne H l : l <> [] -> remap_graph H l = Some (nx_relabel (apply_map (remap_mapping l)) H).
Proof. destruct l; [congruence|reflexivity]. Qed.

Section Canon.
Variables (G H Gc : mgraph) (order : list N).
Hypothesis WG : wf G.
Hypothesis WH : wf H.
Hypothesis AG : amap_id G.
Hypothesis AH : amap_id H.
Hypothesis PG : pos_ids G.
Hypothesis PH : pos_ids H.
Hypothesis Ond : NoDup order.
Hypothesis Oin : forall n, In n order <-> In n (node_ids G).
Hypothesis RG : relabelled_by (sigma_of order) G Gc.

Let pairs := aam_pairs Gc H.
Let extras := extra_nodes H pairs.

Lemma pairs_in a b : In (a, b) pairs <-> In b (node_ids G) /\ In b (node_ids H) /\ a = sigma_of order b.
Proof.
  unfold pairs. rewrite aam_pairs_in. split.
  - intros (k & E1 & E2). apply (amap_lookup (sigma_of order) G Gc WG AG PG RG) in E1.
    apply (amap_lookup (fun n => n) H H WH AH PH (relabelled_id H)) in E2.
    destruct E1 as (n & In1 & -> & ->). destruct E2 as (m & In2 & E & ->). apply N2Z.inj in E. subst. auto.
  - intros (I1 & I2 & ->). exists (Z.of_N b). split.
    + apply (amap_lookup (sigma_of order) G Gc WG AG PG RG). exists b. auto.
    + apply (amap_lookup (fun n => n) H H WH AH PH (relabelled_id H)). exists b. auto.
Qed.

Lemma pairs_snd_in b : In b (map snd pairs) <-> In b (node_ids G) /\ In b (node_ids H).
Proof.
  split.
  - intros I. apply in_map_iff in I. destruct I as ([a b'] & <- & I). apply pairs_in in I. tauto.
  - intros [I1 I2]. apply in_map_iff. exists (sigma_of order b, b). split; [reflexivity|]. apply pairs_in. auto.
Qed.

Lemma pairs_snd_nodup : NoDup (map snd pairs).
Proof.
  unfold pairs. apply aam_pairs_snd_nodup. intros k k' b E1 E2.
  apply (amap_lookup (fun n => n) H H WH AH PH (relabelled_id H)) in E1.
  apply (amap_lookup (fun n => n) H H WH AH PH (relabelled_id H)) in E2.
  destruct E1 as (n & _ & -> & ->). destruct E2 as (m & _ & -> & E). subst. reflexivity.
Qed.

Lemma extras_in n : In n extras <-> In n (node_ids H) /\ ~ In n (node_ids G).
Proof.
  unfold extras, extra_nodes. split.
  - intros I. apply (Permutation_in _ (nsort_perm _)) in I. apply filter_In in I. destruct I as [I Hm].
    split; [exact I|]. intros IG. apply negb_true_iff in Hm. apply not_true_iff_false in Hm. apply Hm.
    apply mem_spec. apply pairs_snd_in. auto.
  - intros [I Hn]. apply (Permutation_in _ (Permutation_sym (nsort_perm _))). apply filter_In. split; [exact I|].
    apply negb_true_iff. apply not_true_iff_false. intros Hm. apply mem_spec in Hm. apply pairs_snd_in in Hm. tauto.
Qed.
Lemma extras_nodup : NoDup extras.
Proof.
  unfold extras, extra_nodes. eapply Permutation_NoDup; [apply Permutation_sym; apply nsort_perm|].
  apply NoDup_filter. destruct WH as (Hnd & _). exact Hnd.
Qed.

Lemma order_perm : Permutation order (node_ids G).
Proof. apply NoDup_Permutation; auto. destruct WG as (Hnd & _). exact Hnd. Qed.
Lemma len_Gc : length (gnodes Gc) = length order.
Proof.
  destruct RG as (RP & _). rewrite (Permutation_length RP). unfold relabel. simpl. rewrite map_length.
  rewrite (Permutation_length order_perm). unfold node_ids. rewrite map_length. reflexivity.
Qed.

Definition f := tau order extras.

Lemma node_map_nodup : NoDup (map snd (pairs ++ extra_pairs (N.of_nat (length order) + 1) extras)).
Proof.
  rewrite map_app, extra_pairs_keys. apply Mono.nodup_app; [apply pairs_snd_nodup|apply extras_nodup|].
  intros y I1 I2. apply pairs_snd_in in I1. apply extras_in in I2. tauto.
Qed.

Lemma f_extra i : (i < length extras)%nat -> f (nth i extras 0%N) = (N.of_nat (length order) + 1 + N.of_nat i)%N.
Proof.
  intros Hi. apply tau_extra; [apply extras_nodup|exact Hi|]. intros I. apply Oin in I.
  assert (IE : In (nth i extras 0%N) extras) by (apply nth_In; exact Hi). apply extras_in in IE. tauto.
Qed.

(** the dictionary remap_graph builds sends every product atom to its image under [f] *)
Lemma remap_agrees n : In n (node_ids H) ->
  apply_map (remap_mapping (pairs ++ extra_pairs (N.of_nat (length order) + 1) extras)) n = f n.
Proof.
  intros IH. rewrite (remap_mapping_spec _ node_map_nodup). rewrite map_app. unfold apply_map. rewrite assoc_app.
  destruct (in_dec N.eq_dec n (node_ids G)) as [IG|NG].
  - assert (Ip : In (sigma_of order n, n) pairs) by (apply pairs_in; auto).
    rewrite (assoc_nodup_in n (map swap pairs) (sigma_of order n)).
    + unfold f. rewrite tau_sigma; [reflexivity|]. apply Oin. exact IG.
    + rewrite map_fst_swap. apply pairs_snd_nodup.
    + apply in_map_iff. exists (sigma_of order n, n). auto.
  - assert (E1 : assoc n (map swap pairs) = None).
    { apply assoc_none. rewrite map_fst_swap. intros I. apply pairs_snd_in in I. tauto. }
    rewrite E1. unfold f, tau, tau_list. rewrite assoc_app.
    assert (E2 : assoc n (C08_Model.mapping_of order) = None).
    { apply assoc_none. rewrite mapping_of_keys. intros I. apply Oin in I. tauto. }
    rewrite E2.
    destruct (assoc_is_some n (map swap (extra_pairs (N.of_nat (length order) + 1) extras))) as (v & ->); [|reflexivity].
    rewrite map_fst_swap, extra_pairs_keys. apply extras_in. auto.
Qed.

Lemma f_sigma n : In n (node_ids G) -> f n = sigma_of order n.
Proof. intros I. apply tau_sigma. apply Oin. exact I. Qed.

Theorem canonicalise_with_spec : (exists s, In s (node_ids G) /\ In s (node_ids H)) ->
  exists Hc,
    canonicalise_with Gc H = Some (set_amap Gc, pairs, set_amap Hc) /\
    relabelled_by f G Gc /\ Hc = relabel f H /\
    (forall n, In n order -> f n = sigma_of order n) /\
    (forall a b, In (a, b) pairs <-> In b (node_ids G) /\ In b (node_ids H) /\ a = f b).
Proof.
  intros (s & Is1 & Is2). exists (relabel f H).
  assert (Hne : pairs <> []).
  { intros E. assert (I : In (sigma_of order s, s) pairs) by (apply pairs_in; auto). rewrite E in I. destruct I. }
  split; [|split; [|split; [reflexivity|split]]].
  - unfold canonicalise_with. fold pairs. rewrite (node_map_of_ne Gc H pairs Hne). rewrite len_Gc. fold extras.
    rewrite remap_graph_ne by (intros E; apply app_eq_nil in E; tauto).
    rewrite (nx_relabel_agree _ f H (tau_injective order extras) WH remap_agrees). reflexivity.
  - unfold relabelled_by. rewrite <- (relabel_agree (sigma_of order) f G WG) by (intros n I; symmetry; apply f_sigma; exact I). exact RG.
  - intros n I. apply tau_sigma. exact I.
  - intros a b. rewrite pairs_in. split; intros (I1 & I2 & ->); rewrite (f_sigma b I1) in *; auto.
Qed.
End Canon.

Lemma combine_swap (vals l : list N) : combine vals l = map swap (combine l vals).
Proof. revert l. induction vals as [|v vals IH]; intros [|x l]; simpl; auto. f_equal. apply IH. Qed.
Lemma swap_swap (m : list (N * N)) : map swap (map swap m) = m.
Proof. rewrite map_map. rewrite (map_ext _ (fun p => p)) by (intros [? ?]; reflexivity). apply map_id. Qed.

(** for a duplicate-free list of ALL nodes the list form relabels every node to its 1-based position *)
Theorem remap_graph_list_spec (H : mgraph) (l : list N) : wf H -> NoDup l -> (forall n, In n l <-> In n (node_ids H)) -> l <> [] ->
  remap_graph_list H l = Some (relabel (sigma_of l) H).
Proof.
  intros WH Hnd Hin Hne. unfold remap_graph_list.
  rewrite combine_swap. fold (C08_Model.mapping_of l).
  assert (Hm : map swap (C08_Model.mapping_of l) <> []).
  { destruct l as [|x r]; [congruence|]. unfold C08_Model.mapping_of. simpl. discriminate. }
  rewrite (remap_graph_ne H _ Hm). f_equal.
  rewrite remap_mapping_spec by (rewrite map_snd_swap, mapping_of_keys; exact Hnd). rewrite swap_swap.
  assert (Hag : forall n, In n (node_ids H) -> apply_map (C08_Model.mapping_of l) n = tau l [] n).
  { intros n I. rewrite (tau_sigma l [] n) by (apply Hin; exact I). unfold apply_map, sigma_of, C08_Model.apply_map.
    destruct (assoc n (C08_Model.mapping_of l)) eqn:E; [reflexivity|].
    exfalso. apply assoc_none in E. apply E. rewrite mapping_of_keys. apply Hin. exact I. }
  rewrite (nx_relabel_agree _ (tau l []) H (tau_injective l []) WH Hag).
  apply (relabel_agree _ _ H WH). intros n I. apply tau_sigma. apply Hin. exact I.
Qed.
