(** C05 — SynReactor(embed_pre_filter = True).  The cheap pre-filter of find_subgraph_mappings is a guard: it can only
    EMPTY the result of the first search; its decision is a function of per-atom candidate counts and commutes with any
    injective renumbering of substrate and pattern, hence so do the raw, kept and glued results under the option. *)
From Coq Require Import List ZArith Bool.
From SK Require Import lib.LGraph.
From SK Require Import model.C03_Model model.C05_Model proof.C05_Proof proof.C05_Pipe proof.C05_Comp.
Import ListNotations.

Lemma degree_relabel f (Hf : inj f) (g : C06_Model.graph) u : C06_Model.degree (relabel f g) (f u) = C06_Model.degree g u.
Proof. unfold C06_Model.degree, C06_Model.lenN. rewrite (nbrs_relabel f Hf), map_length. reflexivity. Qed.

Lemma qpf_loop_relabel sg pi (Hs : inj sg) (Hp : inj pi) (H P : C06_Model.graph) thr : forall ps est,
  C06_Model.qpf_loop (relabel pi H) (relabel sg P) thr (map sg ps) est = C06_Model.qpf_loop H P thr ps est.
Proof.
  induction ps as [|p ps IH]; intros est; [reflexivity|].
  cbn [map C06_Model.qpf_loop].
  assert (E : C06_Model.lenN (filter (fun h => C06_Model.nm (C06_Model.lab (relabel pi H) h) (C06_Model.lab (relabel sg P) (sg p))
                                             && (C06_Model.degree (relabel sg P) (sg p) <=? C06_Model.degree (relabel pi H) h)%N)
                                    (node_ids (relabel pi H)))
              = C06_Model.lenN (filter (fun h => C06_Model.nm (C06_Model.lab H h) (C06_Model.lab P p)
                                                && (C06_Model.degree P p <=? C06_Model.degree H h)%N) (node_ids H))).
  { unfold C06_Model.lenN. f_equal. rewrite node_ids_relabel. erewrite filter_map_comm; [apply map_length|]. intros h.
    rewrite (lab_relabel pi Hp), (lab_relabel sg Hs), (degree_relabel sg Hs), (degree_relabel pi Hp). reflexivity. }
  rewrite E. destruct (_ =? 0)%N; [reflexivity|]. destruct (_ <? _)%N; [reflexivity|]. apply IH.
Qed.

Lemma quick_pre_filter_relabel sg pi (Hs : inj sg) (Hp : inj pi) (H P : C06_Model.graph) thr :
  C06_Model.quick_pre_filter (relabel pi H) (relabel sg P) thr = C06_Model.quick_pre_filter H P thr.
Proof. unfold C06_Model.quick_pre_filter. rewrite node_ids_relabel. apply qpf_loop_relabel; assumption. Qed.

Section WithThr.
Context {TH : Thr}.

Lemma matches_pf_false strat host pat : matches_pf false strat host pat = matches strat host pat.
Proof. reflexivity. Qed.

(** the guard can only empty the result *)
Lemma matches_pf_true strat host pat :
  matches_pf true strat host pat
  = if C06_Model.quick_pre_filter (host_c06 host) (pat_c06 pat) thr_val then [] else matches strat host pat.
Proof.
  unfold matches_pf, matches, C06_Model.find. cbn [C06_Model.c_pref C06_Model.c_thr cfg_of andb].
  destruct (C06_Model.quick_pre_filter (host_c06 host) (pat_c06 pat) thr_val); reflexivity.
Qed.

Lemma glued_of_pf_true strat host p :
  glued_of_pf true strat host p = if prefilter_fires host p then [] else glued_of strat host p.
Proof.
  unfold glued_of_pf, kept_of_pf, raw_of_pf, prefilter_fires, glued_of, kept_of, raw_of. rewrite matches_pf_true.
  destruct (C06_Model.quick_pre_filter _ _ thr_val); reflexivity.
Qed.

Lemma prefilter_fires_relabel sg pi (Hs : inj sg) (Hp : inj pi) host p :
  prefilter_fires (relabel pi host) (relabel_prep sg p) = prefilter_fires host p.
Proof.
  unfold prefilter_fires. destruct p as [rc l r flag pat]. simpl.
  rewrite host_c06_relabel, pat_c06_relabel. apply quick_pre_filter_relabel; assumption.
Qed.

Theorem matches_pf_relabel pref strat sg pi (Hs : inj sg) (Hp : inj pi) (host : hostg) (pat : molg) :
  matches_pf pref strat (relabel pi host) (relabel sg pat) = map (mv sg pi) (matches_pf pref strat host pat).
Proof.
  destruct pref; [|apply matches_relabel; assumption].
  rewrite !matches_pf_true, host_c06_relabel, pat_c06_relabel, (quick_pre_filter_relabel sg pi Hs Hp).
  destruct (C06_Model.quick_pre_filter _ _ thr_val); [reflexivity | apply matches_relabel; assumption].
Qed.

Theorem glued_of_pf_relabel pref strat sg pi (Hs : inj sg) (Hp : inj pi) host p : p_flag p = false ->
  glued_of_pf pref strat (relabel pi host) (relabel_prep sg p) = map (relabel pi) (glued_of_pf pref strat host p).
Proof.
  intros Hflag. destruct pref.
  - rewrite !glued_of_pf_true, (prefilter_fires_relabel sg pi Hs Hp).
    destruct (prefilter_fires host p); [reflexivity | apply glued_relabel; assumption].
  - apply (glued_relabel strat sg pi Hs Hp host p Hflag).
Qed.

End WithThr.
