(** C20 — soundness of [is_realizable] in full: a returned sequence is an ordering of the pathway (proof/C20_Build.v)
    along which, with unique species per tail, no species count ever becomes negative. *)
From Coq Require Import ZArith List Lia.
Import ListNotations.
From SK Require Import model.C20_Model proof.C20_Spec proof.C20_Petri proof.C20_Build.
Local Open Scope Z_scope.

Lemma pweight_nonneg d s : 0 <= pweight d s.
Proof.
  unfold pweight. induction d as [|[q c] d IH]; simpl; [lia|].
  destruct (0 <? c) eqn:E; simpl; auto. apply Z.ltb_lt in E. destruct (N.eqb q s); lia.
Qed.

(** with unique keys the positive weight of [s] is its one positive entry, which a covering marking dominates *)
Lemma covers_pweight m d s : 0 <= m s -> covers m d -> NoDup (map fst d) -> pweight d s <= m s.
Proof.
  intros Hm Hc Hnd. unfold pweight.
  induction d as [|[q c] d IH]; simpl in *; [exact Hm|].
  inversion Hnd as [|? ? Hq Hnd']; subst.
  assert (IH' : weight (filter (fun sw => 0 <? snd sw) d) s <= m s)
    by (apply IH; auto; intros q' w Hin; apply Hc; right; exact Hin).
  destruct (0 <? c) eqn:E; simpl; [|exact IH'].
  destruct (N.eqb_spec q s) as [->|_]; [|exact IH'].
  rewrite weight_notin.
  - apply Z.ltb_lt in E. specialize (Hc s c (or_introl eq_refl) E). lia.
  - intros Hin. apply Hq. apply in_map_iff in Hin as [[a w] [<- Hin]]. apply filter_In in Hin as [Hin _].
    now apply (in_map fst) in Hin.
Qed.

Lemma ordering_nonneg edges : (forall e, In e edges -> NoDup (map fst (fst e))) ->
  forall sq m m', nonneg m -> ordering edges m sq m' -> Forall nonneg (markings_along edges m sq).
Proof.
  intros Hwf. induction sq as [|j sq IH]; intros m m' Hm Ho; simpl.
  - constructor; auto.
  - apply ordering_cons_inv in Ho as (e & Hnth & Hcov & Ho).
    constructor; auto. rewrite Hnth. apply (IH _ m'); [|exact Ho].
    intros s. unfold fire_edge.
    assert (pweight (fst e) s <= m s).
    { apply covers_pweight; auto. apply Hwf. eapply nth_error_In; eauto. }
    pose proof (pweight_nonneg (snd e) s). lia.
Qed.

Lemma realizable_sound vertices edges flow max_states max_depth sq :
  bo_verdict (is_realizable (build_petri_net_from_flow vertices edges flow) max_states max_depth) = Found sq ->
  realizes edges flow sq /\
  ((forall e, In e edges -> NoDup (map fst (fst e))) -> Forall nonneg (markings_along edges zero sq)).
Proof.
  intros H. apply is_realizable_sound in H. split; [exact H|].
  intros Hwf. destruct H as [Ho _]. apply (ordering_nonneg edges Hwf sq zero zero); [|exact Ho].
  intros s. reflexivity.
Qed.
