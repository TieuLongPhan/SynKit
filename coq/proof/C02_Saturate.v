From Coq Require Import List NArith ZArith Bool Lia.
From SK Require Import lib.LGraph lib.Reach lib.C01_GraphLemmas model.C01_Model model.C02_Model proof.C02_Proof
                       proof.C02_Ball proof.C02_StoreCtx model.C02_Store.
Import ListNotations.

(** contexts saturate: beyond radius |atoms| + 1 nothing is added any more — a large radius (the degenerate "radius 50" cases) gives the
    atoms connected to the start atoms, and the same context as radius |atoms| + 1.  Generic in the node and bond types. *)
Section Saturate.
Context {A B : Type}.
Variable g : lgraph A B.
Hypothesis W : wf g.
Local Notation stp := (Reach.step (nbrs g)).

Lemma nbrs_in_nodes u v : In v (nbrs g u) -> In v (node_ids g).
Proof.
  intros I. apply in_nbrs in I. destruct (adj g u v) as [e|] eqn:E; [|congruence]. apply (adj_some_nodes g u v e W E).
Qed.

Lemma add_all_noop l : forall X, (forall y, In y l -> In y X) -> Reach.add_all l X = X.
Proof.
  induction l as [|x l IH]; intros X H; simpl; [reflexivity|].
  assert (Reach.mem x X = true) as -> by (apply Reach.mem_spec; apply H; left; reflexivity). apply IH. intros y I. apply H. right. exact I.
Qed.

Lemma step_fix_of_len X : length (stp X) = length X -> stp X = X.
Proof. intros L. unfold Reach.step. apply add_all_noop. apply (Reach.add_all_same_length _ _ L). Qed.

Lemma iter_fix X j : stp X = X -> Nat.iter j stp X = X.
Proof. intros F. induction j as [|j IH]; simpl; [reflexivity|]. rewrite IH. exact F. Qed.

Lemma iter_succ_r j X : Nat.iter (S j) stp X = Nat.iter j stp (stp X).
Proof. induction j as [|j IH]; [reflexivity|]. simpl in *. rewrite IH. reflexivity. Qed.

Lemma iter_stabilises : forall fuel X j, NoDup X -> incl X (node_ids g) -> (length (node_ids g) - length X < fuel)%nat ->
  Nat.iter (fuel + j) stp X = Nat.iter fuel stp X.
Proof.
  induction fuel as [|f IH]; intros X j Hn Hi Hf; [lia|].
  destruct (Nat.eq_dec (length (stp X)) (length X)) as [L|L].
  - pose proof (step_fix_of_len X L) as F. rewrite !(iter_fix X _ F). reflexivity.
  - change (Datatypes.S f + j)%nat with (Datatypes.S (f + j)). rewrite !iter_succ_r. apply IH.
    + apply (@Reach.step_nodup (nbrs g)). exact Hn.
    + apply (@Reach.step_incl (node_ids g) (nbrs g) nbrs_in_nodes). exact Hi.
    + pose proof (Reach.add_all_length (flat_map (nbrs g) X) X) as G. fold (stp X) in G.
      pose proof (NoDup_incl_length (@Reach.step_nodup (nbrs g) X Hn) (@Reach.step_incl (node_ids g) (nbrs g) nbrs_in_nodes X Hi)). lia.
Qed.

Theorem ball_saturates (seeds : list N) (j : nat) : (forall s, In s seeds -> In s (node_ids g)) ->
  knn_g g seeds (S (length (node_ids g)) + j) = knn_g g seeds (S (length (node_ids g))) /\
  ball_sub g seeds (S (length (node_ids g)) + j) = ball_sub g seeds (S (length (node_ids g))).
Proof.
  intros HS. assert (knn_g g seeds (S (length (node_ids g)) + j) = knn_g g seeds (S (length (node_ids g)))) as E.
  { unfold knn_g. apply iter_stabilises.
    - apply Reach.add_all_nodup. constructor.
    - intros y I. apply Reach.add_all_in in I. destruct I as [I|[]]. apply HS. exact I.
    - lia. }
  split; [exact E|]. unfold ball_sub. rewrite E. reflexivity.
Qed.
End Saturate.

(** instance: extract_k on full-label ITS graphs *)
Corollary extract_k_saturates (g : its) (j : nat) : wf g ->
  extract_k g (S (length (node_ids g)) + j) = extract_k g (S (length (node_ids g))).
Proof.
  intros W. change (S (length (node_ids g)) + j)%nat with (S (length (node_ids g) + j)). rewrite !extract_k_succ.
  destruct (ball_saturates g W (node_ids (get_rc g)) j) as [E _]; [intros s; apply rc_keys_in|].
  change (knn g (node_ids (get_rc g)) (S (length (node_ids g) + j))) with (knn_g g (node_ids (get_rc g)) (S (length (node_ids g)) + j)).
  rewrite E. reflexivity.
Qed.

Example C02_saturates_nonvacuous :
  wf ex_its /\ extract_k ex_its 50 = extract_k ex_its 9 /\ length (gnodes (extract_k ex_its 50)) = 8%nat /\ length (gnodes (extract_k ex_its 2)) = 7%nat.
Proof.
  split; [apply ex_its_wf|]. split; [|split; vm_compute; reflexivity]. exact (extract_k_saturates ex_its 41 ex_its_wf).
Qed.

(** the saturated context is the set of atoms CONNECTED to the start atoms (by any number of bonds) *)
Section Component.
Context {A B : Type}.
Variable g : lgraph A B.
Hypothesis W : wf g.
Variable seeds : list N.
Hypothesis HS : forall s, In s seeds -> In s (node_ids g).

Inductive connected : N -> Prop :=
| conn_start s : In s seeds -> connected s
| conn_bond u v : connected u -> adj g u v <> None -> connected v.

Lemma connected_walk n : connected n <-> exists s m, In s seeds /\ walk_g g s n m.
Proof.
  split.
  - induction 1 as [s I|u v _ (s & m & Is & Wk) Ad]; [exists s, O; split; [exact I|constructor]|].
    exists s, (S m). split; [exact Is|econstructor; eauto].
  - intros (s & m & Is & Wk). induction Wk as [s|s u n m Wk IH Ad]; [apply conn_start; exact Is|].
    eapply conn_bond; [apply IH; exact Is|exact Ad].
Qed.

Theorem saturated_is_component n :
  In n (knn_g g seeds (S (length (node_ids g)))) <-> connected n.
Proof.
  rewrite connected_walk, knn_g_spec. split.
  - intros (s & m & Is & _ & Wk). exists s, m. auto.
  - intros (s & m & Is & Wk).
    assert (In n (knn_g g seeds (S (length (node_ids g)) + m))) as I by (apply knn_g_spec; exists s, m; repeat split; auto; lia).
    rewrite (proj1 (ball_saturates g W seeds m HS)) in I. apply knn_g_spec in I. exact I.
Qed.
End Component.

(** instance for pair-/absent-label graphs *)
Corollary extract_k_S_saturates (g : sits) (j : nat) : wf g ->
  extract_k_S g (S (length (node_ids g)) + j) = extract_k_S g (S (length (node_ids g))).
Proof.
  intros W. change (S (length (node_ids g)) + j)%nat with (S (length (node_ids g) + j)).
  change (extract_k_S g (S (length (node_ids g) + j))) with (ball_sub g (node_ids (get_rc_S K_default false false g)) (S (length (node_ids g)) + j)).
  change (extract_k_S g (S (length (node_ids g)))) with (ball_sub g (node_ids (get_rc_S K_default false false g)) (S (length (node_ids g)))).
  apply (ball_saturates g W). intros s. apply rcS_nodes_in. exact (proj1 W).
Qed.

Example C02_component_nonvacuous :
  connected ex_its [1%N] 7%N /\ ~ In 7%N (knn_g ex_its [1%N] 2) /\ In 7%N (knn_g ex_its [1%N] 9).
Proof.
  split; [|split; [vm_compute; intuition discriminate|vm_compute; auto 10]].
  apply (conn_bond ex_its [1%N] 6%N 7%N); [|vm_compute; discriminate].
  apply (conn_bond ex_its [1%N] 5%N 6%N); [|vm_compute; discriminate].
  apply (conn_bond ex_its [1%N] 1%N 5%N); [|vm_compute; discriminate]. apply conn_start. left. reflexivity.
Qed.

Theorem saturated_is_component_walk {A B} (g : lgraph A B) (seeds : list N) : wf g -> (forall s, In s seeds -> In s (node_ids g)) ->
  forall n, In n (knn_g g seeds (S (length (node_ids g)))) <-> exists s m, In s seeds /\ walk_g g s n m.
Proof. intros W HS n. rewrite (saturated_is_component g W seeds HS n). apply connected_walk. Qed.
