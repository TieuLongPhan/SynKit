(** C10 — proofs: the graphs rsmi_to_graph builds (MolToGraph.transform with drop_non_aam=True,
    use_index_as_atom_map=True) from an RDKit molecule whose mapped atoms carry distinct map numbers are molecule graphs in
    the sense of [mol_ok] — the premise of C10_smart_roundtrip follows from a contract about RDKit molecules. *)
From Coq Require Import String List NArith ZArith Bool Lia.
From SK Require Import lib.LGraph lib.StrJoin model.C10_Model proof.C10_Views proof.C10_Build proof.C10_Copy
  proof.C10_MolGraph.
Import ListNotations.
Local Open Scope Z_scope.

(** the mapped atoms in index order as (atom index, node id) *)
Fixpoint i2T (idx : N) (l : list ratom) : list (N * N) :=
  match l with [] => [] | a :: r => (if r_map a =? 0 then [] else [(idx, Z.to_N (r_map a))]) ++ i2T (N.succ idx) r end.

Lemma i2T_ge idx l bi x : assoc bi (i2T idx l) = Some x -> (idx <= bi)%N.
Proof.
  revert idx. induction l as [|a r IH]; intros idx; simpl; [discriminate|]. rewrite assoc_app.
  destruct (r_map a =? 0); simpl.
  - intros H. apply IH in H. lia.
  - destruct (N.eqb_spec bi idx); [intros _; lia|]. intros H. apply IH in H. lia.
Qed.

Lemma m2g_nodes_tt atoms : forall idx (g : gr) i2,
  NoDup (map fst (gnodes g) ++ map fst (numT atoms)) -> gwf g ->
  let st := m2g_nodes true true idx atoms (g, i2) in
  gnodes (fst st) = gnodes g ++ numT atoms /\ gedges (fst st) = gedges g /\ gwf (fst st) /\
  (forall bi, assoc bi (snd st) = match assoc bi (i2T idx atoms) with Some x => Some x | None => assoc bi i2 end).
Proof.
  induction atoms as [|a r IH]; intros idx g i2 Hnd W; cbn [m2g_nodes numT i2T].
  - cbv zeta. simpl. rewrite app_nil_r. auto.
  - unfold atom_id. simpl andb. cbn [numT] in Hnd. destruct (r_map a =? 0) eqn:E; simpl negb; cbv iota; rewrite ?E in Hnd.
    + simpl app in *. apply (IH (N.succ idx) g i2 Hnd W).
    + cbn [fst snd]. simpl app in Hnd.
      assert (has_node g (Z.to_N (r_map a)) = false) as Hf.
      { apply not_true_is_false. intros H. apply has_node_in in H. unfold node_ids in H.
        apply NoDup_remove_2 in Hnd. apply Hnd. apply in_app_iff. left. exact H. }
      rewrite (add_node_fresh g _ _ Hf).
      specialize (IH (N.succ idx) (LG (gnodes g ++ [(Z.to_N (r_map a), atom_att a)]) (gedges g)) ((idx, Z.to_N (r_map a)) :: i2)).
      destruct IH as (E1 & E2 & W' & E3).
      * simpl gnodes. rewrite map_app. simpl. rewrite <- app_assoc. simpl. exact Hnd.
      * rewrite <- (add_node_fresh g _ _ Hf). apply gwf_add_node. exact W.
      * cbv zeta in *. rewrite E1. simpl gnodes. rewrite <- app_assoc. split; [reflexivity|split; [exact E2|split; [exact W'|]]].
        intros bi. rewrite E3. simpl. destruct (N.eqb_spec bi idx) as [->|Hne]; [|reflexivity].
        destruct (assoc idx (i2T (N.succ idx) r)) as [x|] eqn:A; [|reflexivity]. apply i2T_ge in A. lia.
Qed.

(** invariants of the bond loop *)
Definition nodes_good (g : gr) : Prop := forall n a, In (n, a) (gnodes g) -> mol_node_ok a = true.
Definition edges_good (g : gr) : Prop :=
  forall u v x, In (u, v, x) (gedges g) -> u <> v /\ exists o, x = EA (Some (OS o)) None /\ okord o = true.

Definition egood (e : N * N * eatt) : Prop :=
  fst (fst e) <> snd (fst e) /\ exists o, snd e = EA (Some (OS o)) None /\ okord o = true.
Lemma upd_edge_egood u v o es : okord o = true -> (forall e, In e es -> egood e) ->
  forall e, In e (upd_edge u v (ea_update (EA (Some (OS o)) None)) es) -> egood e.
Proof.
  intros Ho. induction es as [|[[a0 b0] x0] r IH]; intros H e Hin; [destruct Hin|].
  simpl in Hin. destruct (_ || _).
  - destruct Hin as [<-|Hin]; [|apply H; right; exact Hin].
    destruct (H (a0, b0, x0) (or_introl eq_refl)) as [Hab (o0 & E & _)]. simpl in *. subst x0. split; [exact Hab|]. exists o. auto.
  - destruct Hin as [<-|Hin]; [apply H; left; reflexivity|]. apply IH; [intros e' He'; apply H; right; exact He'|exact Hin].
Qed.

Lemma add_edge_good (g : gr) u v o : gwf g -> nodes_good g -> edges_good g ->
  has_node g u = true -> has_node g v = true -> u <> v -> okord o = true ->
  let g' := add_edge g u v (EA (Some (OS o)) None) in gwf g' /\ nodes_good g' /\ edges_good g' /\ gnodes g' = gnodes g.
Proof.
  intros W NG EG Hu Hv Huv Ho g'. pose proof (gnodes_add_edge_exist g u v (EA (Some (OS o)) None) Hu Hv) as En.
  split; [apply gwf_add_edge; exact W|]. split; [intros n a; unfold g'; rewrite En; apply NG|]. split; [|exact En].
  unfold g'. rewrite add_edge_unfold. cbv zeta.
  assert (gedges (ends_exist g u v) = gedges g) as Ee by apply gedges_ends_exist.
  unfold edges_good. destruct (has_edge (ends_exist g u v) u v); intros a b x Hin; simpl in Hin; rewrite Ee in Hin.
  - apply (upd_edge_egood u v o (gedges g) Ho (fun e => match e with (a', b', x') => EG a' b' x' end) (a, b, x) Hin).
  - apply in_app_iff in Hin. destruct Hin as [Hin|[E|[]]]; [apply EG; exact Hin|]. inversion E; subst. split; [exact Huv|]. exists o. auto.
Qed.

Section MolOk.
Variable m : rmol.
Let atoms := fst m.
Let bonds := snd m.
Hypothesis Hwf : wf_mol m = true.
Hypothesis Hsym : forall a, In a atoms -> elem_ok (r_sym a) = true.
Hypothesis Hord : forall b e o, In (b, e, o) bonds -> okord o = true.
Hypothesis Hmaps : NoDup (map fst (numT atoms)).

Let st := m2g_nodes true true 0%N atoms (g_empty, []).
Let g0 := fst st.

Lemma st_tt : gnodes g0 = numT atoms /\ gedges g0 = [] /\ gwf g0 /\ forall bi, assoc bi (snd st) = assoc bi (i2T 0 atoms).
Proof.
  destruct (m2g_nodes_tt atoms 0%N g_empty []) as (E1 & E2 & W & E3); [exact Hmaps|apply gwf_empty|].
  fold st in E1, E2, W, E3. fold g0 in E1, E2, W. split; [exact E1|split; [exact E2|split; [exact W|]]].
  intros bi. rewrite E3. destruct (assoc bi (i2T 0 atoms)); reflexivity.
Qed.

Lemma numT_good l : (forall a, In a l -> elem_ok (r_sym a) = true) -> forall n a, In (n, a) (numT l) -> mol_node_ok a = true.
Proof.
  induction l as [|x r IH]; intros H n a Hin; [destruct Hin|]. simpl in Hin. apply in_app_iff in Hin. destruct Hin as [Hin|Hin].
  - destruct (r_map x =? 0); [destruct Hin|]. destruct Hin as [E|[]]. inversion E; subst. unfold mol_node_ok, atom_att. simpl.
    apply H. left. reflexivity.
  - apply (IH (fun y Hy => H y (or_intror Hy)) n a Hin).
Qed.

(** index -> id is injective on the mapped atoms, and every id it returns is a node *)
Lemma i2T_in idx l bi x : assoc bi (i2T idx l) = Some x -> In x (map fst (numT l)).
Proof.
  revert idx. induction l as [|a r IH]; intros idx; simpl; [discriminate|]. rewrite assoc_app, map_app, in_app_iff.
  destruct (r_map a =? 0); simpl; [intros H; right; apply (IH _ H)|].
  destruct (N.eqb bi idx); [intros [= <-]; left; left; reflexivity|intros H; right; apply (IH _ H)].
Qed.
Lemma i2T_inj l : forall idx b e x, NoDup (map fst (numT l)) -> assoc b (i2T idx l) = Some x -> assoc e (i2T idx l) = Some x -> b = e.
Proof.
  induction l as [|a r IH]; intros idx b e x Hnd; simpl; [discriminate|]. rewrite !assoc_app. simpl in Hnd. rewrite map_app in Hnd.
  destruct (r_map a =? 0); simpl in *; [apply IH; exact Hnd|]. inversion Hnd as [|? ? Hnot Hnd']; subst.
  destruct (N.eqb_spec b idx) as [->|Hb]; destruct (N.eqb_spec e idx) as [->|He]; try reflexivity.
  - intros [= <-] H. exfalso. apply Hnot. apply (i2T_in _ _ _ _ H).
  - intros H [= <-]. exfalso. apply Hnot. apply (i2T_in _ _ _ _ H).
  - apply IH. exact Hnd'.
Qed.

Lemma bonds_fold l : forall g : gr, (forall b e o, In (b, e, o) l -> b <> e /\ okord o = true) ->
  gwf g -> nodes_good g -> edges_good g -> gnodes g = gnodes g0 ->
  let g' := fold_left (m2g_bond (snd st)) l g in gwf g' /\ nodes_good g' /\ edges_good g' /\ gnodes g' = gnodes g0.
Proof.
  induction l as [|[[b e] o] r IH]; intros g Hl W NG EG En; [simpl; auto|]. cbn [fold_left].
  destruct (Hl b e o (or_introl eq_refl)) as [Hbe Ho].
  assert (forall b' e' o', In (b', e', o') r -> b' <> e' /\ okord o' = true) as Hl' by (intros; apply Hl; right; assumption).
  destruct st_tt as (E1 & _ & _ & HA).
  assert (m2g_bond (snd st) g (b, e, o) =
          match assoc b (i2T 0 atoms), assoc e (i2T 0 atoms) with
          | Some u, Some v => add_edge g u v (EA (Some (OS o)) None) | _, _ => g end) as Es
    by (unfold m2g_bond; rewrite !HA; reflexivity).
  rewrite Es. clear Es.
  destruct (assoc b (i2T 0 atoms)) as [u|] eqn:Ab; [|apply IH; assumption].
  destruct (assoc e (i2T 0 atoms)) as [v|] eqn:Ae; [|apply IH; assumption].
  assert (has_node g u = true /\ has_node g v = true) as [Hu Hv].
  { split; apply has_node_in; unfold node_ids; rewrite En, E1; eapply i2T_in; eassumption. }
  assert (u <> v) as Huv by (intros ->; apply Hbe; apply (i2T_inj atoms 0%N b e v Hmaps Ab Ae)).
  destruct (add_edge_good g u v o W NG EG Hu Hv Huv Ho) as (W' & NG' & EG' & En'). cbv zeta in *.
  apply IH; try assumption. congruence.
Qed.

Lemma NoDup_nodupb l : NoDup l -> nodupb l = true.
Proof.
  induction 1 as [|x r Hx Hr IH]; [reflexivity|]. simpl. rewrite IH, andb_true_r. apply negb_true_iff, not_true_is_false.
  intros H. apply mem_spec in H. contradiction.
Qed.

Lemma mol_to_graph_good : let G := mol_to_graph m true true in gwf G /\ nodes_good G /\ edges_good G.
Proof.
  destruct st_tt as (E1 & E2 & W0 & _).
  assert (nodes_good g0) as NG0 by (intros n a Hin; rewrite E1 in Hin; apply (numT_good atoms Hsym n a Hin)).
  assert (edges_good g0) as EG0 by (intros u v x Hin; rewrite E2 in Hin; destruct Hin).
  assert (forall b e o, In (b, e, o) bonds -> b <> e /\ okord o = true) as Hl.
  { intros b e o Hin. split; [|apply (Hord b e o Hin)]. destruct (wf_bonds_spec _ _ Hwf) as [_ HB]. apply (HB b e o Hin). }
  destruct (bonds_fold bonds g0 Hl W0 NG0 EG0 eq_refl) as (W & NG & EG & _). auto.
Qed.

Theorem mol_to_graph_mol_ok : mol_ok (mol_to_graph m true true) = true.
Proof.
  destruct mol_to_graph_good as (W & NG & EG). set (G := mol_to_graph m true true) in *.
  unfold mol_ok. rewrite !andb_true_iff. repeat split.
  - apply NoDup_nodupb, (gwf_nd G W).
  - apply (gwf_uq G W).
  - apply forallb_forall. intros [n a] Hin. apply (NG n a Hin).
  - apply forallb_forall. intros [[u v] x] Hin. destruct (EG u v x Hin) as [Huv (o & -> & Ho)].
    destruct (gwf_cl G W u v _ Hin) as [Hu Hv]. unfold mol_edge_ok. rewrite Hu, Hv. simpl.
    destruct (N.eqb_spec u v); [contradiction|]. simpl. exact Ho.
Qed.
Theorem mol_to_graph_std_free : std_free (mol_to_graph m true true) = true.
Proof.
  destruct mol_to_graph_good as (_ & _ & EG). unfold std_free. apply forallb_forall. intros [[u v] x] Hin.
  destruct (EG u v x Hin) as [_ (o & -> & _)]. reflexivity.
Qed.
End MolOk.

Lemma rdmol_ok_parts (m : rmol) : rdmol_ok m = true ->
  wf_mol m = true /\ (forall a, In a (fst m) -> elem_ok (r_sym a) = true) /\
  (forall b e o, In (b, e, o) (snd m) -> okord o = true) /\ NoDup (map fst (numT (fst m))).
Proof.
  unfold rdmol_ok. intros H. apply andb_true_iff in H. destruct H as [H H4]. apply andb_true_iff in H. destruct H as [H H3].
  apply andb_true_iff in H. destruct H as [H1 H2]. rewrite forallb_forall in H2, H3.
  split; [exact H1|split; [exact H2|split; [intros b e o Hin; apply (H3 (b, e, o) Hin)|apply nodupb_NoDup, H4]]].
Qed.

Theorem rsmi_graph_std_free (m : rmol) : rdmol_ok m = true -> std_free (mol_to_graph m true true) = true.
Proof. intros H. destruct (rdmol_ok_parts m H) as (H1 & H2 & H3 & H4). apply mol_to_graph_std_free; assumption. Qed.
Theorem rsmi_graph_mol_ok (m : rmol) : rdmol_ok m = true -> mol_ok (mol_to_graph m true true) = true.
Proof. intros H. destruct (rdmol_ok_parts m H) as (H1 & H2 & H3 & H4). apply mol_to_graph_mol_ok; assumption. Qed.

Local Open Scope string_scope.
Example rsmi_graph_mol_ok_ex :
  let m : rmol := ([RAt (s2l "C") false 3 0 11; RAt (s2l "Cl") false 0 0 0; RAt (s2l "O") false 0 (-1) 12], [(0%N, 1%N, 2); (0%N, 2%N, 2)]) in
  rdmol_ok m = true /\ node_ids (mol_to_graph m true true) = [11; 12]%N /\ mol_ok (mol_to_graph m true true) = true.
Proof. vm_compute. repeat split. Qed.
