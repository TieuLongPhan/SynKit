(** C11 (round 5, after the seeded change C11-w4-1) — lone atoms are never exchanged: a component consisting of a single
    atom is an orbit of its own, however many equally labelled lone atoms the graph has (component swaps excluded), and a
    graph that consists of lone atoms only has exactly one counted automorphism.  Stdlib lists. *)
From Coq Require Import List NArith.
From SK Require Import lib.LGraph model.C11_Model proof.C11_Aut proof.C11_Dedup proof.C11_Main proof.C11_Comp
     proof.C11_Extend proof.C11_Count.
Import ListNotations.

Theorem lone_atoms_fixed (fn : nlab -> N) (fe : elab -> N) (g : graph) : wf g ->
  (forall u o, In [u] (components g) -> In o (a_orbits (analyze fn fe g)) -> In u o -> forall v, In v o <-> v = u) /\
  (forall m, In m (filter (keepsb g) (auts fn fe g)) ->
     forall u, In [u] (components g) -> app_map m u = u) /\
  ((forall c, In c (components g) -> exists u, c = [u]) -> a_count (analyze fn fe g) = 1%N).
Proof.
  intros Hwf. pose proof (wf_simple g Hwf) as Hs. split; [|split].
  - intros u o Hc Ho Hu v. rewrite (orbits_no_swaps fn fe g Hwf o u v Ho Hu). split.
    + intros (s & _ & Hk & <-). exact (keeps_lone g s u Hk Hc).
    + intros ->. exists (fun x => x). split; [exact (proj1 (aut_group fn fe g Hs))|]. split; [intros c x _ Hx; exact Hx | reflexivity].
  - intros m Hm u Hc. apply filter_In in Hm. destruct Hm as [_ Hk]. apply keepsb_spec in Hk. exact (keeps_lone g _ u Hk Hc).
  - intros Hall. destruct (count_no_swaps fn fe g Hwf) as (Hcount & Hspec). rewrite Hcount. unfold kept_auts in *.
    (* every kept automorphism is the identity on the nodes, so there is exactly one: the listing is duplicate-free *)
    assert (Hone : forall m, In m (filter (keepsb g) (auts fn fe g)) -> m = aut_pairs g (fun x => x)).
    { intros m Hm. destruct (proj1 (Hspec m) Hm) as (s & _ & Hk & ->). apply aut_pairs_ext. intros u Hu.
      destruct (components_spec g Hwf) as (_ & _ & C3). destruct (C3 u Hu) as (c & Hc & Huc).
      destruct (Hall c Hc) as (w & ->). destruct Huc as [<-|[]]. exact (keeps_lone g s w Hk Hc). }
    assert (Hid : In (aut_pairs g (fun x => x)) (filter (keepsb g) (auts fn fe g))).
    { apply Hspec. exists (fun x => x). split; [exact (proj1 (aut_group fn fe g Hs))|]. split; [intros c x _ Hx; exact Hx | reflexivity]. }
    assert (Hnd : NoDup (filter (keepsb g) (auts fn fe g))) by (apply NoDup_filter, (auts_nodup fn fe g Hs)).
    destruct (filter (keepsb g) (auts fn fe g)) as [|a [|b r]] eqn:E; [destruct Hid | reflexivity|].
    exfalso. inversion Hnd as [|? ? Hnot _]; subst. apply Hnot.
    rewrite (Hone a (or_introl eq_refl)), <- (Hone b (or_intror (or_introl eq_refl))). left. reflexivity.
Qed.

(** non-vacuity: [Ca+2].[Cl-].[Cl-] - three lone atoms, two of them alike: three singleton orbits, one automorphism counted
    (the whole group, swaps included, has two) *)
Definition ex_cacl2 : graph :=
  LG [(1%N, (1%N, 1%N, 1%N)); (2%N, (2%N, 2%N, 2%N)); (3%N, (2%N, 2%N, 2%N))] [].
Example ex_lone :
  wfb ex_cacl2 = true /\ components ex_cacl2 = [[1]; [2]; [3]]%N /\
  a_orbits (analyze n_exact e_order ex_cacl2) = [[1]; [2]; [3]]%N /\ a_count (analyze n_exact e_order ex_cacl2) = 1%N /\
  length (auts n_exact e_order ex_cacl2) = 2%nat.
Proof. vm_compute. repeat split. Qed.
