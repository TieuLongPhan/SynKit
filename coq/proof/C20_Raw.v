(** C20 — the attribute layer (model/C20_RawModel.v): the graph the siphon / trap / persistence code works on depends only on each
    node's identifier, its two classification tests and its effective label, and on each arc's end points, role and effective
    coefficient; the fully annotated export normalises to the export of model/C20_Model.v, so every C20 theorem about
    [bipartite_of] / [with_species_order] applies to what the code computes from it and from every attribute-equivalent graph. *)
From Coq Require Import ZArith List Lia.
Import ListNotations.
From SK Require Import model.C20_Model model.C20_RawModel proof.C20_Spec proof.C20_Siphon.

Definition node_eqv (a b : rnode) : Prop :=
  rn_id a = rn_id b /\ species_like a = species_like b /\ reaction_like a = reaction_like b /\ label_of a = label_of b.
Definition arc_eqv (a b : rarc) : Prop :=
  ra_src a = ra_src b /\ ra_dst a = ra_dst b /\ ra_role a = ra_role b /\ eff_stoich a = eff_stoich b.

Lemma filter_map_eqv {B} (p : rnode -> bool) (f : rnode -> B) ns ns' :
  (forall a b, node_eqv a b -> p a = p b) -> (forall a b, node_eqv a b -> f a = f b) ->
  Forall2 node_eqv ns ns' -> map f (filter p ns) = map f (filter p ns').
Proof.
  intros Hp Hf. induction 1 as [|a b ns ns' Hab Hrest IH]; simpl; auto.
  rewrite (Hp a b Hab). destruct (p b); simpl; [rewrite (Hf a b Hab), IH|]; auto.
Qed.

Theorem normalise_eqv G G' :
  Forall2 node_eqv (rg_nodes G) (rg_nodes G') -> Forall2 arc_eqv (rg_arcs G) (rg_arcs G') ->
  normalise G = normalise G'.
Proof.
  intros Hn Ha. unfold normalise. f_equal.
  - apply filter_map_eqv; auto.
    + intros a b (_ & Hs & _ & _). exact Hs.
    + intros a b (Hid & _ & _ & Hl). now rewrite Hid, Hl.
  - apply filter_map_eqv; auto.
    + intros a b (_ & Hs & Hr & _). unfold is_reaction. now rewrite Hs, Hr.
    + intros a b (Hid & _). exact Hid.
  - induction Ha as [|a b l l' (Hs & Hd & Hr & Hc) Hrest IH]; simpl; auto.
    unfold arc_of at 1 3. rewrite Hs, Hd, Hr, Hc, IH. reflexivity.
Qed.

Corollary run_net_raw_eqv G G' k cands sup :
  Forall2 node_eqv (rg_nodes G) (rg_nodes G') -> Forall2 arc_eqv (rg_arcs G) (rg_arcs G') ->
  run_net_raw G k cands sup = run_net_raw G' k cands sup.
Proof. intros Hn Ha. unfold run_net_raw. now rewrite (normalise_eqv G G' Hn Ha). Qed.

Lemma filter_map_all {A B} (p : B -> bool) (f : A -> B) l : (forall x, p (f x) = true) -> filter p (map f l) = map f l.
Proof. intros H. induction l as [|x l IH]; simpl; auto. now rewrite H, IH. Qed.

Lemma filter_map_none {A B} (p : B -> bool) (f : A -> B) l : (forall x, p (f x) = false) -> filter p (map f l) = [].
Proof. intros H. induction l as [|x l IH]; simpl; auto. now rewrite H. Qed.

Theorem normalise_raw_export sp_order n rs :
  normalise (raw_export sp_order n rs) =
  BG (map (fun i => (sp_node i, i)) sp_order) (g_reactions (bipartite_of n rs)) (g_arcs (bipartite_of n rs)).
Proof.
  unfold normalise, raw_export. simpl rg_nodes. simpl rg_arcs. f_equal.
  - rewrite filter_app, filter_map_all, filter_map_none, app_nil_r by reflexivity. now rewrite map_map.
  - rewrite filter_app, filter_map_none, filter_map_all by reflexivity. simpl. now rewrite map_map.
  - simpl. induction (arcs_from n 0 rs) as [|a l IH]; simpl; auto. rewrite IH. destruct a; reflexivity.
Qed.

(** in label order the raw export normalises to [bipartite_of]; in any other insertion order to [with_species_order] *)
Corollary normalise_raw_export_sorted n rs : normalise (raw_export (seq 0 n) n rs) = bipartite_of n rs.
Proof. rewrite normalise_raw_export. reflexivity. Qed.

Corollary normalise_raw_export_order order n rs : order <> [] ->
  normalise (raw_export order n rs) = with_species_order order (bipartite_of n rs).
Proof. intros H. rewrite normalise_raw_export. destruct order; [congruence|reflexivity]. Qed.

(** non-vacuity: A -> B with full attributes, and the same graph with the classification carried by one attribute only, labels
    left to the node ids' strings, no coefficient, plus junk: same graph, siphon {A}, trap {B} *)
Definition raw20_full : rgraph := raw_export [0; 1] 2 [([(0, 1%Z)], [(1, 1%Z)])].
Definition raw20_bare : rgraph :=
  RG [RNode 1 None (Some true) None 0; RNode 9 None None None 7; RNode 2 (Some true) None None 1; RNode 3 (Some false) None (Some 5) 0]
     [RArc 1 3 (Some Reactant) None; RArc 3 2 (Some Product) None; RArc 1 2 None (Some 4%Z); RArc 9 3 None None].
Example raw20_examples :
  normalise raw20_full = bipartite_of 2 [([(0, 1%Z)], [(1, 1%Z)])] /\
  normalise raw20_bare = normalise raw20_full /\
  find_siphons (normalise raw20_bare) None = Some [[0]] /\ find_traps (normalise raw20_bare) None = Some [[1]].
Proof. vm_compute. repeat split; reflexivity. Qed.

Section Undirected.
  Variables (order : list nat) (n : nat) (rs : list rxn).
  Hypothesis Hwf : wf_net n rs.
  Hypothesis Horder : Forall (fun i => i < n) order.

  Let G := raw_export order n rs.

  Lemma orient_rarc_nodes G1 G2 a : rg_nodes G1 = rg_nodes G2 -> orient_rarc G1 a = orient_rarc G2 a.
  Proof. intros H. unfold orient_rarc, find_rnode. now rewrite H. Qed.

  Lemma find_species_end i : i < n ->
    match find_rnode G (sp_node i) with Some nd => u_is_rxn nd = false | None => True end.
  Proof.
    intros Hi. unfold find_rnode.
    destruct (find (fun nd => Nat.eqb (rn_id nd) (sp_node i)) (rg_nodes G)) as [nd|] eqn:E; auto.
    apply find_some in E as [Hin Hp]. apply Nat.eqb_eq in Hp.
    unfold G, raw_export in Hin. simpl in Hin. apply in_app_iff in Hin as [Hin|Hin].
    - apply in_map_iff in Hin as [i' [<- _]]. reflexivity.
    - apply in_map_iff in Hin as [j [<- _]]. simpl in Hp. unfold rx_node, sp_node in Hp. lia.
  Qed.

  Lemma find_reaction_end j : j < length rs ->
    exists nd, find_rnode G (rx_node n j) = Some nd /\ u_is_rxn nd = true.
  Proof.
    intros Hj. unfold find_rnode.
    destruct (find (fun nd => Nat.eqb (rn_id nd) (rx_node n j)) (rg_nodes G)) as [nd|] eqn:E.
    - exists nd. split; auto. apply find_some in E as [Hin Hp]. apply Nat.eqb_eq in Hp.
      unfold G, raw_export in Hin. simpl in Hin. apply in_app_iff in Hin as [Hin|Hin].
      + apply in_map_iff in Hin as [i' [<- Hi']]. simpl in Hp. rewrite Forall_forall in Horder.
        specialize (Horder i' Hi'). unfold rx_node, sp_node in Hp. lia.
      + apply in_map_iff in Hin as [j' [<- _]]. reflexivity.
    - exfalso.
      assert (Hin : In (RNode (rx_node n j) (Some false) (Some false) None 0) (rg_nodes G)).
      { unfold G, raw_export. simpl. apply in_app_iff. right. apply in_map_iff. exists j. split; auto. apply in_seq. lia. }
      pose proof (find_none _ _ E _ Hin) as Hf. simpl in Hf. rewrite Nat.eqb_refl in Hf. discriminate.
  Qed.

  Definition mk_rarc (a : arc) : rarc := RArc (a_src a) (a_dst a) (Some (a_role a)) (Some (a_stoich a)).

  Lemma raw_export_arcs : rg_arcs G = map mk_rarc (arcs_from n 0 rs).
  Proof. reflexivity. Qed.

  Lemma orient_flip b k ro sc : fst sc < n -> k < length rs ->
    orient_rarc G (flip_rarc b (mk_rarc (role_arc n k ro sc))) = mk_rarc (role_arc n k ro sc).
  Proof.
    intros Hi Hk. pose proof (find_species_end (fst sc) Hi) as Fs. destruct (find_reaction_end k Hk) as [nr [Fr Ur]].
    destruct ro, b; unfold mk_rarc, flip_rarc, orient_rarc;
      cbn [role_arc a_src a_dst a_role a_stoich ra_src ra_dst ra_role].
    - rewrite Fr, Ur. reflexivity.
    - destruct (find_rnode G (sp_node (fst sc))) as [ns|]; [rewrite Fs|]; reflexivity.
    - destruct (find_rnode G (sp_node (fst sc))) as [ns|]; [rewrite Fs|]; reflexivity.
    - rewrite Fr, Ur. reflexivity.
  Qed.

  Lemma stored_orient l : incl l (arcs_from n 0 rs) ->
    forall flips, map (orient_rarc G) (stored flips (map mk_rarc l)) = map mk_rarc l.
  Proof.
    induction l as [|a l IH]; intros Hall flips; [destruct flips; reflexivity|].
    assert (Ha : orient_rarc G (flip_rarc (hd false flips) (mk_rarc a)) = mk_rarc a).
    { assert (Hin : In a (arcs_from n 0 rs)) by (apply Hall; now left).
      apply in_arcs_from in Hin as (k & r & Hk & Hin). simpl in Hin.
      apply in_arcs_of_rxn in Hin as (ro & sc & Hsc & ->). apply orient_flip; [|apply nth_error_Some; congruence].
      apply (wf_side n rs Hwf ro r sc); [eapply nth_error_In; eauto|exact Hsc]. }
    assert (Hl : incl l (arcs_from n 0 rs)) by (intros a' H'; apply Hall; now right).
    destruct flips as [|b flips]; simpl in *; rewrite Ha; f_equal; apply (IH Hl).
  Qed.

  (** whichever way the undirected graph stores its edges, orienting them by role gives back the directed raw export — so undirected
      inputs are covered by [normalise_raw_export] and everything that follows from it *)
  Theorem orient_undirected_raw flips : orient_raw (undirected_raw flips G) = G.
  Proof.
    unfold orient_raw, undirected_raw. cbn [rg_nodes rg_arcs].
    rewrite (map_ext _ (orient_rarc G)) by (intros a; apply orient_rarc_nodes; reflexivity).
    rewrite raw_export_arcs, (stored_orient _ (incl_refl _)), <- raw_export_arcs. now destruct G.
  Qed.
End Undirected.
