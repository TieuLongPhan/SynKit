(** C10 — proofs: the reaction-level wrappers of model/C10_Rxn.v.
    1. three documented routes to a rule (reaction string; full ITS of rsmi_to_its; centre returned by rsmi_to_its(core=True)),
       with and without explicit_hydrogen: all read back to the reaction centre;
    2. rsmi_to_its(explicit_hydrogen=True) keeps the hydrogen count of the ITS;
    3. graph_to_rsmi: without hydrogen atoms in the centre the explicit_hydrogen flag changes nothing; the strict and the
       lenient model of the preserve path agree when the keys are there. *)
From Coq Require Import String List NArith ZArith Bool Lia.
From SK Require Import lib.LGraph lib.StrJoin model.C10_Model model.C10_Text model.C10_Rxn proof.C10_Text proof.C10_Proof proof.C10_Views proof.C10_Build
  proof.C10_Copy proof.C10_GmlRead proof.C10_GmlWrite proof.C10_Centre proof.C10_Routes proof.C10_Routes2 proof.C10_Hydrogen
  proof.C10_HRound proof.C10_GmlEH proof.C10_Smart proof.C10_MolOk proof.C10_Relabel proof.C10_Reindex proof.C10_ReindexEH.
Import ListNotations.
Local Open Scope Z_scope.

Section Three.
Variables r p : gr.
Variable eo : list (N * N).
Hypothesis Hr : mol_ok r = true.
Hypothesis Hp : mol_ok p = true.
Hypothesis Hb : balanced r p = true.
Hypothesis He : forall u v, pair_in u v eo = has_edge r u v || has_edge p u v.
Let I := its_construct r p eo.
Let c := get_rc I.

Lemma three_routes_sec (eh : bool) :
  reads_centre c (gml_to_its (smart_to_gml r p eo true false eh)) /\
  reads_centre c (gml_to_its (its_to_gml (rsmi_to_its r p eo false false) true false eh)) /\
  reads_centre c (gml_to_its (its_to_gml (rsmi_to_its r p eo true false) true false eh)).
Proof.
  pose proof (I_is_ok r p Hr Hp Hb eo He) as HI. pose proof (centre_IOK r p Hr Hp Hb eo He) as K.
  split; [rewrite two_routes_string_its|split]; [exact (centre_full I HI K eh)..|].
  exact (centre_centre I HI K eh).
Qed.
End Three.

Theorem three_routes (r p : gr) (eo : list (N * N)) (eh : bool) :
  mol_ok r = true -> mol_ok p = true -> balanced r p = true -> eo_covers r p eo = true ->
  let c := get_rc (its_construct r p eo) in
  reads_centre c (gml_to_its (smart_to_gml r p eo true false eh)) /\
  reads_centre c (gml_to_its (its_to_gml (rsmi_to_its r p eo false false) true false eh)) /\
  reads_centre c (gml_to_its (its_to_gml (rsmi_to_its r p eo true false) true false eh)).
Proof.
  intros Hr Hp Hb He. apply three_routes_sec; auto. apply eo_covers_spec. exact He.
Qed.

(** ** ... and through the TEXT: the rule text written for the reaction, read by GMLToNX, gives the centre *)
Theorem three_routes_text (r p : gr) (eo : list (N * N)) (eh : bool) (name : str) :
  mol_ok r = true -> mol_ok p = true -> balanced r p = true -> eo_covers r p eo = true -> ~ In 10%N name ->
  let c := get_rc (its_construct r p eo) in
  let via_text := fun rec : grec => rec_okb rec = true ->
    exists X, option_map snd (text_to_nx (render name rec)) = Some X /\ reads_centre c X in
  via_text (smart_to_gml r p eo true false eh) /\
  via_text (its_to_gml (rsmi_to_its r p eo false false) true false eh) /\
  via_text (its_to_gml (rsmi_to_its r p eo true false) true false eh).
Proof.
  intros Hr Hp Hb He Hn c via_text. destruct (three_routes r p eo eh Hr Hp Hb He) as (A & B & C). fold c in A, B, C.
  unfold via_text. repeat split; intros Hk; eexists; (split; [rewrite (text_to_nx_render name _ Hn Hk); reflexivity|]); assumption.
Qed.

(** ** ... starting from what the code reads from RDKit: two molecule records in the contract [rdmol_ok] *)
Theorem three_routes_from_records (mr mp : rmol) (eo : list (N * N)) (eh : bool) :
  rdmol_ok mr = true -> rdmol_ok mp = true ->
  let r := mol_to_graph mr true true in
  let p := mol_to_graph mp true true in
  balanced r p = true -> eo_covers r p eo = true ->
  let c := get_rc (its_construct r p eo) in
  reads_centre c (gml_to_its (smart_to_gml r p eo true false eh)) /\
  reads_centre c (gml_to_its (its_to_gml (rsmi_to_its r p eo false false) true false eh)) /\
  reads_centre c (gml_to_its (its_to_gml (rsmi_to_its r p eo true false) true false eh)).
Proof.
  intros Hr Hp r p Hb He. apply three_routes; [apply rsmi_graph_mol_ok, Hr|apply rsmi_graph_mol_ok, Hp|exact Hb|exact He].
Qed.

(** ** the same with reindex=True (the default of its_to_gml): every route gives a renumbering of the centre *)
Theorem three_routes_reindex (r p : gr) (eo : list (N * N)) (eh : bool) :
  mol_ok r = true -> mol_ok p = true -> balanced r p = true -> eo_covers r p eo = true ->
  let c := get_rc (its_construct r p eo) in
  let fA := mapget (enum_from 1%N (node_ids c)) in
  let fC := mapget (enum_from 1%N (node_ids (get_rc c))) in
  reads_centre_by c fA (gml_to_its (smart_to_gml r p eo true true eh)) /\
  reads_centre_by c fA (gml_to_its (its_to_gml (rsmi_to_its r p eo false false) true true eh)) /\
  reads_centre_by c fC (gml_to_its (its_to_gml (rsmi_to_its r p eo true false) true true eh)).
Proof.
  intros Hr Hp Hb He0 c fA fC. pose proof (eo_covers_spec r p eo He0) as He.
  pose proof (I_is_ok r p Hr Hp Hb eo He) as HI. pose proof (centre_IOK r p Hr Hp Hb eo He) as K.
  split; [rewrite two_routes_string_its|split]; [exact (centre_full_reindex _ HI K eh)..|].
  exact (centre_centre_reindex _ HI K eh).
Qed.

(** ** full ITS vs its centre for an ARBITRARY ITS graph (not only ITSGraph of molecule graphs), explicit_hydrogen either way *)
Theorem two_routes_centre_any (I : gr) (eh : bool) :
  gwfb I = true -> all_tgh I = true -> its_ok (get_rc I) = true ->
  let c := get_rc I in
  reads_centre c (gml_to_its (its_to_gml I true false eh)) /\ reads_centre c (gml_to_its (its_to_gml c true false eh)).
Proof.
  intros Hw Ht Hok c. pose proof (gwfb_alltgh_is_ok I Hw Ht) as HI. pose proof (its_ok_IOK _ Hok) as K.
  split; [exact (centre_full I HI K eh)|exact (centre_centre I HI K eh)].
Qed.

(** ** rsmi_to_its(explicit_hydrogen=True) keeps the total hydrogen count of the ITS (any graphs at all) *)
Theorem rsmi_to_its_total_h (r p : gr) (eo : list (N * N)) :
  total_h (rsmi_to_its r p eo false true) = total_h (rsmi_to_its r p eo false false).
Proof. unfold rsmi_to_its. apply h_total_explicit. Qed.

Lemma rc_h_maps_no_H rc : no_H rc = true -> rc_h_maps rc = Some [].
Proof.
  unfold no_H, rc_h_maps. induction (gnodes rc) as [|q l IH]; [reflexivity|]. simpl. intros H. apply andb_true_iff in H.
  destruct H as [H1 H2]. apply negb_true_iff in H1. rewrite H1. apply IH. exact H2.
Qed.

Theorem graph_to_rsmi_no_H (r p its : gr) (eh : bool) : no_H (get_rc its) = true ->
  graph_to_rsmi_mols r p its eh = Some (graph_to_mol r, graph_to_mol p).
Proof.
  intros H. unfold graph_to_rsmi_mols. destruct eh; [reflexivity|]. rewrite (rc_h_maps_no_H _ H). reflexivity.
Qed.

Theorem graph_to_smi_mol_k_ok (g : gr) (l : list Z) : imph_keys_ok g = true -> graph_to_smi_mol_k g l = graph_to_smi_mol g l.
Proof. intros H. unfold graph_to_smi_mol_k, graph_to_smi_mol. destruct l; [reflexivity|]. rewrite H. reflexivity. Qed.

(** the preserve list is exactly the atom maps of the hydrogens of the centre, in node order *)
Theorem rc_h_maps_spec rc l : rc_h_maps rc = Some l ->
  l = map (fun q : N * natt => dflt (a_am (snd q)) 0) (filter (fun q : N * natt => el_is_H (snd q)) (gnodes rc)).
Proof.
  unfold rc_h_maps. revert l. induction (gnodes rc) as [|q t IH]; intros l; [intros [= <-]; reflexivity|].
  cbn [fold_right filter]. destruct (el_is_H (snd q)) eqn:EH.
  - destruct (a_am (snd q)) as [m|] eqn:EA; [|discriminate].
    destruct (fold_right _ _ t) as [l'|]; [|discriminate]. intros [= <-]. cbn [map]. rewrite EA. simpl. f_equal. apply IH. reflexivity.
  - apply IH.
Qed.

(** ** the writer is _rule_grammar of its last intermediate state *)
Theorem nx_to_gml_mid_spec (Lg Rg Kg : gr) (reindex eh : bool) :
  nx_to_gml Lg Rg Kg reindex eh = rule_grammar (nx_to_gml_mid Lg Rg Kg reindex eh) eh.
Proof. unfold nx_to_gml, nx_to_gml_mid, rule_grammar. destruct reindex; reflexivity. Qed.
Theorem its_to_gml_mid_spec (its : gr) (core reindex eh : bool) :
  its_to_gml its core reindex eh = rule_grammar (its_to_gml_mid its core reindex eh) eh.
Proof. unfold its_to_gml, its_to_gml_mid. destruct (its_decompose _) as [r p]. apply nx_to_gml_mid_spec. Qed.

(** non-vacuity *)
Example three_routes_ex :
  mol_ok ex_r = true /\ mol_ok ex_p = true /\ balanced ex_r ex_p = true /\ eo_covers ex_r ex_p (union_pairs ex_r ex_p) = true /\
  List.length (gnodes (get_rc (its_construct ex_r ex_p (union_pairs ex_r ex_p)))) = 3%nat /\
  List.length (gnodes (rsmi_to_its ex_r ex_p (union_pairs ex_r ex_p) false false)) = 4%nat.
Proof. vm_compute. repeat split. Qed.

Definition ex_rh : gr := LG [(1%N, mkq "C" 2 0); (2%N, mkq "O" 1 0)] [(1%N, 2%N, EA (Some (OS 2)) None)].
Example rsmi_to_its_total_h_ex :
  total_h (rsmi_to_its ex_r ex_p (union_pairs ex_r ex_p) false true) = 9 /\
  List.length (gnodes (rsmi_to_its ex_r ex_p (union_pairs ex_r ex_p) false true)) = 13%nat.
Proof. vm_compute. split; reflexivity. Qed.

Example graph_to_rsmi_no_H_ex :
  let its := its_construct ex_r ex_p (union_pairs ex_r ex_p) in
  no_H (get_rc its) = true /\ graph_to_rsmi_mols ex_r ex_p its false <> None.
Proof. vm_compute. split; [reflexivity|discriminate]. Qed.

(** ** KNOWN FINDING smiles_to_graph:use_index_as_atom_map:partial-mapping-id-collision (code kept as it is): with
    use_index_as_atom_map=True and drop_non_aam=False a mapped atom is numbered by its map number and an unmapped atom by
    index + 1; on the partially mapped molecule [CH3:2]C both atoms get id 2, the graph has one node with a self-loop and
    graph_to_mol fails — although the molecule is well formed and its map numbers are distinct; the default flags are fine *)
Definition ex_partial : rmol := ([RAt (s2l "C") false 3 0 2; RAt (s2l "C") false 3 0 0], [(0%N, 1%N, 2)]).
Theorem partial_mapping_id_collision_refuted :
  exists m : rmol, wf_mol m = true /\ nodupb (map fst (numT (fst m))) = true /\
    List.length (gnodes (mol_to_graph m false true)) = 1%nat /\ List.length (fst m) = 2%nat /\
    graph_to_mol (mol_to_graph m false true) = None /\
    List.length (gnodes (mol_to_graph m false false)) = 2%nat /\ graph_to_mol (mol_to_graph m false false) <> None.
Proof. exists ex_partial. vm_compute. repeat split; discriminate. Qed.
