(** C16 — text-level lemmas: strip / split / join / decimal printing, and the side printer/parser inverse
    [from_chars (pre ++ fmt_side sd ++ post) = Some sd]. *)
From stdpp Require Import gmap strings sets pretty sorting.
From Coq Require Import Ascii ZifyBool.
From SK Require Import lib.Tok model.C15_Model proof.C15_Proof model.C16_Model proof.C16_Defs proof.C16_Common.
Local Open Scope string_scope.
Local Open Scope list_scope.

(** * strings and character lists *)
Lemma to_of_chars l : to_chars (of_chars l) = l.
Proof. apply list_ascii_of_string_of_list_ascii. Qed.
Lemma of_to_chars s : of_chars (to_chars s) = s.
Proof. apply string_of_list_ascii_of_string. Qed.
Lemma to_chars_app s1 s2 : to_chars (s1 +:+ s2) = to_chars s1 ++ to_chars s2.
Proof. induction s1 as [|a s1 IH]; simpl; [done|]. by rewrite <-IH. Qed.
Lemma to_chars_inj s1 s2 : to_chars s1 = to_chars s2 → s1 = s2.
Proof. intros E. by rewrite <-(of_to_chars s1), <-(of_to_chars s2), E. Qed.

(** * character classes *)
Definition spaces (l : chars) : Prop := Forall (λ a, py_space a = true) l.
(** characters of a printed term: label characters (anything but white space and + * | >) *)
Definition tok_chars (l : chars) : Prop := Forall (λ a, label_char a = true) l.

Lemma label_char_plain a : label_char a = true →
  py_space a = false ∧ is_char "+" a = false ∧ is_char "*" a = false ∧ is_char "|" a = false ∧ is_char ">" a = false.
Proof. unfold label_char. rewrite !andb_true_iff, !negb_true_iff. tauto. Qed.

Lemma is_char_code c a : is_char c a = (code a =? code c)%N.
Proof.
  unfold is_char, code. case_bool_decide as E.
  - subst. symmetry. apply N.eqb_refl.
  - symmetry. apply N.eqb_neq. intros E'. apply E. by rewrite <-(ascii_N_embedding a), E', ascii_N_embedding.
Qed.
(** the character classes are ranges of codes: a relation between them is linear arithmetic over the code of [a] *)
Local Ltac by_code a := rewrite ?is_char_code; generalize (code a); cbv -[N.leb N.ltb N.eqb andb orb negb]; lia.
Lemma is_alpha_label a : is_alpha a = true → label_char a = true ∧ is_digit a = false.
Proof. unfold label_char, is_alpha, is_digit, is_ascii7, py_space. by_code a. Qed.
Lemma is_digit_label a : is_digit a = true → label_char a = true.
Proof. unfold label_char, is_digit, is_ascii7, py_space. by_code a. Qed.
Lemma space_plain a : py_space a = true →
  is_char "+" a = false ∧ is_char "|" a = false ∧ is_char ">" a = false.
Proof. unfold py_space. by_code a. Qed.
Lemma is_char_true c a : is_char c a = true ↔ a = c.
Proof. unfold is_char. by rewrite bool_decide_eq_true. Qed.
Lemma is_char_false c a : is_char c a = false ↔ a ≠ c.
Proof. unfold is_char. by rewrite bool_decide_eq_false. Qed.

(** * take_while / drop_while / strip *)
Lemma take_while_app P x a y : Forall (λ c, P c = true) x → P a = false → take_while P (x ++ a :: y) = x.
Proof. induction 1 as [|c x Hc _ IH]; intros Ha; simpl; [by rewrite Ha|]. by rewrite Hc, IH. Qed.
Lemma take_while_all P x : Forall (λ c, P c = true) x → take_while P x = x.
Proof. induction 1 as [|c x Hc _ IH]; simpl; [done|]. by rewrite Hc, IH. Qed.
Lemma drop_while_app P x a y : Forall (λ c, P c = true) x → P a = false → drop_while P (x ++ a :: y) = a :: y.
Proof. induction 1 as [|c x Hc _ IH]; intros Ha; simpl; [by rewrite Ha|]. by rewrite Hc, IH. Qed.
Lemma drop_while_all P x : Forall (λ c, P c = true) x → drop_while P x = [].
Proof. induction 1 as [|c x Hc _ IH]; simpl; [done|]. by rewrite Hc. Qed.
Lemma drop_while_app_r P u b w : P b = false → drop_while P (u ++ b :: w) = drop_while P u ++ b :: w.
Proof.
  intros Hb. induction u as [|a u IH]; simpl; [by rewrite Hb|].
  destruct (P a); [done|done].
Qed.

(** non-empty, first and last character are not white space *)
Definition edge_clean (l : chars) : Prop :=
  (∃ a t, l = a :: t ∧ py_space a = false) ∧ (∃ t b, l = t ++ [b] ∧ py_space b = false).

Lemma rstrip_app_nonspace x b y : py_space b = false → rstrip (x ++ b :: y) = x ++ b :: rstrip y.
Proof.
  intros Hb. unfold rstrip. rewrite reverse_app, reverse_cons, <-(assoc_L (++)). simpl.
  rewrite drop_while_app_r by done. rewrite reverse_app, reverse_cons, reverse_involutive.
  by rewrite <-(assoc_L (++)).
Qed.
Lemma rstrip_spaces y : spaces y → rstrip y = [].
Proof.
  intros Hy. unfold rstrip. rewrite drop_while_all; [done|]. by apply Forall_reverse.
Qed.
Lemma strip_pad pre core post : spaces pre → spaces post → edge_clean core → strip (pre ++ core ++ post) = core.
Proof.
  intros Hpre Hpost [(a & t & -> & Ha) (t' & b & Ht' & Hb)]. unfold strip, lstrip.
  change ((a :: t) ++ post) with (a :: (t ++ post)). rewrite drop_while_app by done.
  change (a :: t ++ post) with ((a :: t) ++ post). rewrite Ht', <-(assoc_L (++)). simpl.
  rewrite rstrip_app_nonspace by done. by rewrite rstrip_spaces.
Qed.
Lemma strip_clean core : edge_clean core → strip core = core.
Proof. intros H. rewrite <-(strip_pad [] core []) at 2; [by rewrite app_nil_r|constructor|constructor|done]. Qed.

Lemma tok_edge_clean l : l ≠ [] → tok_chars l → edge_clean l.
Proof.
  intros Hne Hl. split.
  - destruct l as [|a t]; [done|]. exists a, t. split; [done|]. by apply label_char_plain, (Forall_inv Hl).
  - destruct l as [|b t _] using rev_ind; [done|]. exists t, b. split; [done|].
    apply Forall_app in Hl as [_ Hb]. by apply label_char_plain, (Forall_inv Hb).
Qed.

(** * split_by / py_words / join *)
Lemma split_by_free P x : Forall (λ c, P c = false) x → split_by P x = [x].
Proof. induction 1 as [|c x Hc _ IH]; simpl; [done|]. by rewrite Hc, IH. Qed.
Lemma split_by_app P x a y : Forall (λ c, P c = false) x → P a = true → split_by P (x ++ a :: y) = x :: split_by P y.
Proof. induction 1 as [|c x Hc _ IH]; intros Ha; simpl; [by rewrite Ha|]. by rewrite Hc, IH. Qed.

Lemma py_words_tok l : l ≠ [] → tok_chars l → py_words l = [l].
Proof.
  intros Hne Hl. unfold py_words. rewrite split_by_free.
  - by rewrite filter_cons_True, filter_nil by done.
  - eapply Forall_impl; [exact Hl|]. intros a Ha. by apply label_char_plain.
Qed.
Lemma replace_star_tok l : tok_chars l → replace_star l = l.
Proof.
  induction 1 as [|a l Ha _ IH]; [done|]. unfold replace_star in *. rewrite fmap_cons, IH.
  apply label_char_plain in Ha as (_ & _ & -> & _). done.
Qed.

Definition plus_sep : chars := to_chars " + ".
(** splitting the printed side at '+' and stripping the pieces gives back the terms *)
Lemma split_join_terms ts : ts ≠ [] → Forall (λ t, t ≠ [] ∧ tok_chars t) ts →
  ∀ pre post, spaces pre → spaces post →
  strip <$> split_by (is_char "+") (pre ++ join plus_sep ts ++ post) = ts.
Proof.
  induction ts as [|t ts IH]; [done|]. intros _ Hts pre post Hpre Hpost.
  apply Forall_cons in Hts as [[Hne Ht] Hts].
  assert (Forall (λ c, is_char "+" c = false) t) as Htp.
  { eapply Forall_impl; [exact Ht|]. intros a Ha. by apply label_char_plain. }
  assert (∀ l, spaces l → Forall (λ c, is_char "+" c = false) l) as Hsp.
  { intros l Hl. eapply Forall_impl; [exact Hl|]. intros a Ha. by apply space_plain. }
  destruct ts as [|t2 ts].
  - simpl. rewrite split_by_free.
    + simpl. by rewrite strip_pad by auto using tok_edge_clean.
    + rewrite !Forall_app; auto.
  - change (join plus_sep (t :: t2 :: ts)) with (t ++ plus_sep ++ join plus_sep (t2 :: ts)).
    unfold plus_sep at 1. change (to_chars " + ") with ([" "%char] ++ "+"%char :: [" "%char]).
    replace (pre ++ (t ++ ([" "%char] ++ "+"%char :: [" "%char]) ++ join plus_sep (t2 :: ts)) ++ post)
      with ((pre ++ t ++ [" "%char]) ++ "+"%char :: ([" "%char] ++ join plus_sep (t2 :: ts) ++ post)).
    2:{ rewrite <-?(assoc_L (++)). simpl. by rewrite <-?(assoc_L (++)). }
    rewrite split_by_app; [| |done].
    + rewrite fmap_cons. rewrite strip_pad; [|first [done|by repeat constructor|by apply tok_edge_clean]..].
      f_equal. apply IH; [done|done|by repeat constructor|done].
    + rewrite !Forall_app. split_and!; auto; by repeat constructor.
Qed.

(** * decimal printing *)
Definition dstep (acc : N) (a : ascii) : N := (10 * acc + digit_val a)%N.
Lemma digit_val_char d : (d < 10)%N → digit_val (pretty_N_char d) = d ∧ is_digit (pretty_N_char d) = true.
Proof.
  intros Hd.
  assert (d = 0 ∨ d = 1 ∨ d = 2 ∨ d = 3 ∨ d = 4 ∨ d = 5 ∨ d = 6 ∨ d = 7 ∨ d = 8 ∨ d = 9)%N as Hc by lia.
  repeat (destruct Hc as [->|Hc]; [by vm_compute|]). subst. by vm_compute.
Qed.
Lemma pretty_N_go_chars x : ∀ s, ∃ ds p,
  to_chars (pretty_N_go x s) = ds ++ to_chars s ∧ Forall (λ a, is_digit a = true) ds ∧
  (∀ acc, foldl dstep acc ds = acc * p + x)%N ∧ ((0 < x)%N → ds ≠ []).
Proof.
  induction (N.lt_wf_0 x) as [x _ IH]. intros s.
  destruct (decide (x = 0%N)) as [->|Hx].
  - exists [], 1%N. rewrite pretty_N_go_0. split_and!; [done|constructor|intros; simpl; lia|lia].
  - rewrite pretty_N_go_step by lia.
    destruct (IH (x `div` 10)%N (N.div_lt x 10 ltac:(lia) eq_refl) (String (pretty_N_char (x `mod` 10)) s))
      as (ds & p & Hds & Hdig & Hval & _).
    destruct (digit_val_char (x `mod` 10)%N) as [Hv Hd]; [by apply N.mod_lt|].
    exists (ds ++ [pretty_N_char (x `mod` 10)]), (10 * p)%N. split_and!.
    + rewrite Hds. simpl. by rewrite <-(assoc_L (++)).
    + apply Forall_app. split; [done|by repeat constructor].
    + intros acc. rewrite foldl_app. cbn [foldl]. unfold dstep at 1. rewrite Hval, Hv.
      pose proof (N.div_mod' x 10). lia.
    + intros _. by destruct ds.
Qed.
Lemma pretty_pos_chars (c : positive) : ∃ ds,
  to_chars (pretty (Npos c)) = ds ∧ ds ≠ [] ∧ Forall (λ a, is_digit a = true) ds ∧ digits_val ds = Npos c.
Proof.
  unfold pretty, pretty_N. rewrite decide_False by done.
  destruct (pretty_N_go_chars (Npos c) "") as (ds & p & Hds & Hdig & Hval & Hne).
  exists ds. simpl in Hds. rewrite app_nil_r in Hds. split_and!; [done|by apply Hne|done|].
  unfold digits_val. change (λ acc a, (10 * acc + digit_val a)%N) with dstep. rewrite Hval. lia.
Qed.

(** * one printed term *)
Definition term_chars (p : string * positive) : chars := to_chars (fmt_term p).

Lemma valid_label_chars s : valid_label s = true →
  ∃ a t, to_chars s = a :: t ∧ is_alpha a = true ∧ tok_chars (a :: t).
Proof.
  unfold valid_label. destruct (to_chars s) as [|a t]; [done|]. intros [Ha Ht]%andb_true_iff.
  exists a, t. split_and!; [done|done|]. constructor; [by apply is_alpha_label|].
  apply Forall_forall. intros c Hc. rewrite forallb_forall in Ht. apply Ht. by apply elem_of_list_In.
Qed.

Lemma term_chars_tok p : valid_label p.1 = true → term_chars p ≠ [] ∧ tok_chars (term_chars p).
Proof.
  intros (a & t & Hs & Ha & Htok)%valid_label_chars. unfold term_chars, fmt_term.
  destruct (decide _).
  - rewrite Hs. done.
  - rewrite to_chars_app, Hs. destruct (pretty_pos_chars p.2) as (ds & -> & Hne & Hdig & _). split.
    + by destruct ds.
    + apply Forall_app. split; [|done]. eapply Forall_impl; [exact Hdig|]. intros c. apply is_digit_label.
Qed.

Lemma coef_split_term p : valid_label p.1 = true →
  coef_split (term_chars p) = if decide (p.2 = 1%positive) then None else Some (Npos p.2, to_chars p.1).
Proof.
  intros (a & t & Hs & Ha & Htok)%valid_label_chars. unfold term_chars, fmt_term, coef_split.
  destruct (is_alpha_label _ Ha) as [_ Hnd].
  destruct (decide _).
  - rewrite Hs. simpl. by rewrite Hnd.
  - rewrite to_chars_app, Hs. destruct (pretty_pos_chars p.2) as (ds & -> & Hne & Hdig & Hval).
    rewrite take_while_app, drop_while_app by done. destruct ds as [|d ds]; [done|]. by rewrite Ha, Hval.
Qed.

Lemma term_chars_head p : valid_label p.1 = true →
  ∃ a t, term_chars p = a :: t ∧ (is_alpha a = true ∨ is_digit a = true).
Proof.
  intros (a & t & Hs & Ha & Htok)%valid_label_chars. unfold term_chars, fmt_term. destruct (decide _).
  - rewrite Hs. eauto.
  - rewrite to_chars_app, Hs. destruct (pretty_pos_chars p.2) as (ds & -> & Hne & Hdig & _).
    destruct ds as [|d ds]; [done|]. apply Forall_inv in Hdig. exists d, (ds ++ a :: t). eauto.
Qed.

Lemma proc_part_term out p : valid_label p.1 = true →
  proc_part out (term_chars p) = Some (side_add out p.1 (Z.pos p.2)).
Proof.
  intros Hv. destruct (term_chars_tok p Hv) as [Hne Htok]. unfold proc_part.
  rewrite replace_star_tok, strip_clean, py_words_tok by auto using tok_edge_clean.
  rewrite coef_split_term by done. destruct (decide _) as [Hc|Hc].
  - rewrite Hc. f_equal. f_equal. unfold term_chars, fmt_term. rewrite decide_True by done. apply of_to_chars.
  - by rewrite of_to_chars.
Qed.

(** * a whole side *)
Definition side_items (sd : side) : list (string * positive) := sort_by_key (map_to_list sd).
Definition side_chars (sd : side) : chars := to_chars (fmt_side sd).

Lemma side_items_perm sd : side_items sd ≡ₚ map_to_list sd.
Proof. apply merge_sort_Permutation. Qed.

Lemma side_chars_nonempty sd : sd ≠ ∅ → side_chars sd = join plus_sep (term_chars <$> side_items sd).
Proof.
  intros Hne. unfold side_chars, fmt_side. rewrite decide_False by done. rewrite to_of_chars.
  reflexivity.
Qed.

Lemma proc_parts_terms (l : list (string * positive)) : Forall (λ p, valid_label p.1 = true) l → ∀ out,
  foldl (λ acc p, acc ≫= λ out, proc_part out p) (Some out) (term_chars <$> l)
  = Some (foldl (λ o p, side_add o p.1 (Z.pos p.2)) out l).
Proof.
  induction 1 as [|p l Hp _ IH]; intros out; simpl; [done|]. by rewrite proc_part_term, IH.
Qed.

Lemma empty_sign_edge_clean : edge_clean (to_chars empty_sign).
Proof. split; [by eexists _, _|]. exists (removelast (to_chars empty_sign)), (ascii_of_N 133). by vm_compute. Qed.

Lemma join_Forall (P : ascii → Prop) sep ts : Forall P sep → Forall (Forall P) ts → Forall P (join sep ts).
Proof.
  intros Hsep. induction 1 as [|t ts Ht Hts IH]; [constructor|]. destruct ts as [|t2 ts]; [done|].
  change (join sep (t :: t2 :: ts)) with (t ++ sep ++ join sep (t2 :: ts)). rewrite !Forall_app. auto.
Qed.

Lemma join_edge_clean ts : ts ≠ [] → Forall (λ t, t ≠ [] ∧ tok_chars t) ts → edge_clean (join plus_sep ts).
Proof.
  intros Hne Hts. split.
  - destruct ts as [|t ts]; [done|]. apply Forall_cons in Hts as [[Hn Ht] _].
    destruct t as [|a t]; [done|]. apply Forall_inv in Ht. apply label_char_plain in Ht as [Ha _].
    destruct ts; simpl; eauto.
  - induction ts as [|t ts IH]; [done|]. apply Forall_cons in Hts as [[Hn Ht] Hts].
    destruct ts as [|t2 ts].
    + simpl. destruct (tok_edge_clean t Hn Ht) as [_ H]. done.
    + destruct IH as (u & b & Hu & Hb); [done|done|].
      change (join plus_sep (t :: t2 :: ts)) with (t ++ plus_sep ++ join plus_sep (t2 :: ts)).
      rewrite Hu. exists (t ++ plus_sep ++ u), b. split; [|done]. by rewrite <-!(assoc_L (++)).
Qed.

Lemma side_terms_ok sd : side_labels_ok sd = true →
  Forall (λ p, valid_label p.1 = true) (side_items sd) ∧
  Forall (λ t, t ≠ [] ∧ tok_chars t) (term_chars <$> side_items sd).
Proof.
  unfold side_labels_ok. rewrite bool_decide_eq_true. intros Hok.
  assert (Forall (λ p : string * positive, valid_label p.1 = true) (side_items sd)) as H.
  { apply Forall_forall. intros [s c] Hin. rewrite side_items_perm in Hin. apply elem_of_map_to_list in Hin.
    by apply (Hok s c). }
  split; [done|]. apply Forall_fmap. eapply Forall_impl; [exact H|]. intros p Hp. by apply term_chars_tok.
Qed.

Lemma side_items_nonempty sd : sd ≠ ∅ → side_items sd ≠ [].
Proof.
  intros Hne Hnil. apply Hne. apply map_to_list_empty_iff. apply Permutation_nil_r. by rewrite <-side_items_perm, Hnil.
Qed.

Lemma side_chars_edge_clean sd : side_labels_ok sd = true → edge_clean (side_chars sd).
Proof.
  intros Hok. destruct (decide (sd = ∅)) as [->|Hne].
  - apply empty_sign_edge_clean.
  - rewrite side_chars_nonempty by done. apply join_edge_clean; [|by apply side_terms_ok].
    intros Hnil%fmap_nil_inv. by apply side_items_nonempty in Hnil.
Qed.

(** characters that never occur in a printed side *)
Definition bar_gt_free (l : chars) : Prop := Forall (λ a, is_char "|" a = false ∧ is_char ">" a = false) l.
Lemma side_chars_bar_gt_free sd : side_labels_ok sd = true → bar_gt_free (side_chars sd).
Proof.
  intros Hok. destruct (decide (sd = ∅)) as [->|Hne].
  - unfold bar_gt_free. by repeat constructor.
  - rewrite side_chars_nonempty by done. apply join_Forall; [by repeat constructor|].
    destruct (side_terms_ok sd Hok) as [_ H]. eapply Forall_impl; [exact H|]. intros t [_ Ht].
    eapply Forall_impl; [exact Ht|]. intros a Ha. by apply label_char_plain.
Qed.

Lemma filter_Forall_id {A} (P : A → Prop) `{∀ x, Decision (P x)} (l : list A) : Forall P l → filter P l = l.
Proof. induction 1; [done|]. rewrite filter_cons_True by done. by f_equal. Qed.

Lemma side_items_nodup sd : NoDup (side_items sd).*1.
Proof. rewrite side_items_perm. apply NoDup_fst_map_to_list. Qed.
Lemma side_items_to_map sd : (list_to_map (side_items sd) : gmap string positive) = sd.
Proof.
  rewrite (list_to_map_proper _ (map_to_list sd)); [apply list_to_map_to_list|apply side_items_nodup|apply side_items_perm].
Qed.

Lemma from_chars_side sd pre post : side_labels_ok sd = true → spaces pre → spaces post →
  from_chars (pre ++ side_chars sd ++ post) = Some sd.
Proof.
  intros Hok Hpre Hpost. unfold from_chars. rewrite strip_pad by auto using side_chars_edge_clean.
  destruct (decide (sd = ∅)) as [->|Hne].
  - rewrite decide_True; [done|by right].
  - destruct (side_terms_ok sd Hok) as [Hv Ht].
    assert (term_chars <$> side_items sd ≠ []) as Hnn.
    { intros Hnil%fmap_nil_inv. by apply side_items_nonempty in Hnil. }
    rewrite decide_False.
    2:{ rewrite side_chars_nonempty by done. intros [Hnil|Hsign].
        - destruct (join_edge_clean _ Hnn Ht) as [(a & t & Ha & _) _]. by rewrite Hnil in Ha.
        - inversion Hv as [E|p ps Hp Hps E]; [by rewrite <-E in Hnn|]. rewrite <-E, fmap_cons in Hsign.
          destruct (term_chars_head p Hp) as (a & t & Ha & Hhead). rewrite Ha in Hsign.
          destruct (term_chars <$> ps); simpl in Hsign; injection Hsign as -> _; by destruct Hhead. }
    rewrite side_chars_nonempty by done.
    pose proof (split_join_terms _ Hnn Ht [] [] ltac:(constructor) ltac:(constructor)) as Hsp.
    rewrite app_nil_r in Hsp. simpl in Hsp. rewrite Hsp.
    rewrite filter_Forall_id by (eapply Forall_impl; [exact Ht|]; by intros t [? _]).
    rewrite proc_parts_terms by done. f_equal. etrans; [apply (foldl_insert_fresh_empty _ fst snd)|].
    + apply side_items_nodup.
    + intros m [s c] _ Hm. unfold side_add, side. cbn in *. by rewrite Hm.
    + rewrite <-(side_items_to_map sd) at 2. f_equal. rewrite <-(list_fmap_id (side_items sd)) at 2.
      apply list_fmap_ext. by intros ? [].
Qed.
