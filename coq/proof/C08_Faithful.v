(** C08 — faithfulness and onto-1..N: rebuilding ([rebuild_spec]) or relabelling in place ([relabel_order_spec]) by the
    positions in any ordering of the node set; the back-ends that sort the nodes (generic; wl and morgan for ANY colour /
    label ranking) are instances, the exact back-end uses [relabel_order_spec] in C08_Nauty.v. *)
From Coq Require Import List NArith ZArith Bool Arith Lia Permutation.
From SK Require Import lib.LGraph model.C08_Model proof.C08_Spec proof.C08_Sort.
Import ListNotations.

Lemma attr_of_in (g : graph) p : NoDup (node_ids g) -> In p (gnodes g) -> attr_of g (fst p) = snd p.
Proof.
  intros Hnd Hin. unfold attr_of, label. destruct p as [k a]. simpl.
  rewrite (assoc_nodup_in k (gnodes g) a); auto.
Qed.

Lemma gnodes_relabel_as_ids (g : graph) f : NoDup (node_ids g) ->
  gnodes (relabel f g) = map (fun v => (f v, attr_of g v)) (node_ids g).
Proof.
  intros Hnd. unfold relabel, node_ids. simpl. rewrite map_map.
  apply map_ext_in. intros p Hp. rewrite (attr_of_in g p); auto.
Qed.

Lemma ix_inj_on (g : graph) order : NoDup (node_ids g) -> Permutation order (node_ids g) ->
  C08_Spec.inj_on (apply_map (mapping_of order)) (node_ids g).
Proof.
  intros Hnd Hp. eapply inj_on_perm; [exact Hp|]. apply mapping_of_inj.
  exact (Permutation_NoDup (Permutation_sym Hp) Hnd).
Qed.

Lemma rebuild_spec (g : graph) order : NoDup (node_ids g) -> Permutation order (node_ids g) ->
  faithful g (rebuild g order) /\ node_ids (rebuild g order) = map N.of_nat (seq 1 (length (gnodes g))).
Proof.
  intros Hnd Hp.
  assert (Hndo : NoDup order) by (exact (Permutation_NoDup (Permutation_sym Hp) Hnd)).
  split.
  - exists (apply_map (mapping_of order)). split; [|split].
    + apply ix_inj_on; auto.
    + unfold rebuild. cbn [gnodes]. rewrite gnodes_relabel_as_ids by auto. apply Permutation_map. exact Hp.
    + reflexivity.
  - unfold rebuild, node_ids. cbv zeta. cbn [gnodes]. rewrite map_map.
    rewrite (map_ext _ (apply_map (mapping_of order))) by reflexivity.
    rewrite (mapping_of_map order Hndo). f_equal. f_equal.
    rewrite (Permutation_length Hp). unfold node_ids. apply map_length.
Qed.

(* relabelling in place by the positions in ANY ordering of the nodes (the exact back-end, whatever leaf it returns) *)
Lemma relabel_order_spec (g : graph) order : NoDup (node_ids g) -> Permutation order (node_ids g) ->
  faithful g (relabel (apply_map (mapping_of order)) g) /\ onto_1N g (relabel (apply_map (mapping_of order)) g).
Proof.
  intros Hnd Hp.
  assert (Hndo : NoDup order) by (exact (Permutation_NoDup (Permutation_sym Hp) Hnd)).
  split.
  - exists (apply_map (mapping_of order)). split; [|split]; auto. apply ix_inj_on; auto.
  - unfold onto_1N, node_ids, relabel. cbn [gnodes]. rewrite map_map. cbn [fst].
    rewrite <- (map_map fst (apply_map (mapping_of order))).
    eapply perm_trans; [apply Permutation_map; apply Permutation_sym; exact Hp|].
    rewrite (mapping_of_map _ Hndo). rewrite (Permutation_length Hp). unfold node_ids. rewrite map_length. apply Permutation_refl.
Qed.

Lemma generic_order_perm (g : graph) : Permutation (map fst (sort_by nkey_id (gnodes g))) (node_ids g).
Proof. unfold node_ids. apply Permutation_map. apply sort_by_perm. Qed.

Theorem faithful_generic (g : graph) : NoDup (node_ids g) -> faithful g (canon_generic g).
Proof. intros H. apply rebuild_spec; auto. apply generic_order_perm. Qed.
Theorem onto_generic (g : graph) : NoDup (node_ids g) -> onto_1N g (canon_generic g).
Proof.
  intros H. unfold onto_1N. destruct (rebuild_spec g _ H (generic_order_perm g)) as [_ E].
  unfold canon_generic. rewrite E. apply Permutation_refl.
Qed.

(* wl / morgan: whatever ranks the colour oracle returns *)
Theorem faithful_rank (ranks : list (N * Z)) (g : graph) : NoDup (node_ids g) -> faithful g (canon_rank ranks g).
Proof. intros H. apply rebuild_spec; auto. apply sort_by_perm. Qed.
Theorem onto_rank (ranks : list (N * Z)) (g : graph) : NoDup (node_ids g) -> onto_1N g (canon_rank ranks g).
Proof.
  intros H. unfold onto_1N, canon_rank.
  match goal with |- context [rebuild g ?o] => destruct (rebuild_spec g o H (sort_by_perm _ (node_ids g))) as [_ E] end.
  rewrite E. apply Permutation_refl.
Qed.

(* non-vacuity *)
Definition ex_g : graph :=
  LG [(7%N, NA [67%N] false 0 0 None); (3%N, NA [79%N] false 0 1 None); (5%N, NA [67%N] false 0 0 None)]
     [(7%N, 3%N, EA 2 None); (5%N, 3%N, EA 4 None)].
Example ex_generic_ids : node_ids (canon_generic ex_g) = [1%N; 2%N; 3%N] /\ NoDup (node_ids ex_g).
Proof. split; [vm_compute; reflexivity|]. repeat constructor; simpl; intuition discriminate. Qed.
Example ex_rank_ids : node_ids (canon_rank [(7%N, 1%Z); (3%N, 0%Z); (5%N, 1%Z)] ex_g) = [1%N; 2%N; 3%N].
Proof. vm_compute. reflexivity. Qed.
