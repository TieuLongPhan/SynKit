(** C11 (round 5) — the safe region of deduplicate_matches_with_anchor (DESIGN section 5, "C11_prune_sound_exact_orbits_
    singletons"): when every prepared free orbit has at most one member, the signature of a match determines the match on
    all covered pattern nodes, so the function drops nothing but duplicates (same items as a kept match).  Outside this
    region it merges matches that no symmetry of the pattern relates - a concrete witness on the path a-b-c-d with its
    exact orbits (this is why the reactor prunes by rule automorphisms since fix aa7fe3c, and why PartialMatcher's
    prune_auto is documented as approximate).  Stdlib lists. *)
From Coq Require Import List NArith Lia.
From SK Require Import lib.LGraph model.C11_Model proof.C11_Aut proof.C11_Dedup proof.C11_Sig.
Import ListNotations.

(** ---------- every match is represented by a kept match with the same signature ---------- *)
Lemma dedup_sig_go_repr {X} (key : X -> mapping) (sg : mapping -> option sig) xs :
  forall seen out, dedup_sig_go key sg xs seen = Some out ->
  forall x, In x xs -> exists s, sg (key x) = Some s /\ (In s seen \/ exists y, In y out /\ sg (key y) = Some s).
Proof.
  induction xs as [|h r IH]; intros seen out H x Hx; [destruct Hx|].
  simpl in H. destruct (sg (key h)) as [s|] eqn:Es; [|discriminate].
  destruct (existsb (sig_eqb s) seen) eqn:Eseen.
  - destruct Hx as [<-|Hx]; [|exact (IH seen out H x Hx)].
    exists s. split; [exact Es|]. left. apply seen_spec. exact Eseen.
  - destruct (dedup_sig_go key sg r (s :: seen)) as [o|] eqn:Eo; [|discriminate]. inversion H; subst out.
    destruct Hx as [<-|Hx].
    + exists s. split; [exact Es|]. right. exists h. split; [left; reflexivity | exact Es].
    + destruct (IH (s :: seen) o Eo x Hx) as (s' & Es' & [[<-|Hin]|(y & Hy & Ey)]).
      * exists s. split; [exact Es'|]. right. exists h. split; [left; reflexivity | exact Es].
      * exists s'. split; [exact Es'|]. left. exact Hin.
      * exists s'. split; [exact Es'|]. right. exists y. split; [right; exact Hy | exact Ey].
Qed.

(** ---------- signatures over orbits with at most one member ---------- *)
Definition part_of (m : mapping) (p : N) : list (list N * list N) :=
  match assoc p m with Some h => [([p], [h])] | None => [] end.

Lemma free_sig_small m free :
  (forall o, In o free -> (length o <= 1)%nat) ->
  free_sig_pattern m free None = Some (flat_map (part_of m) (concat free)).
Proof.
  induction free as [|o r IH]; intros H; [reflexivity|].
  assert (Hr : forall o', In o' r -> (length o' <= 1)%nat) by (intros o' Ho'; apply H; right; exact Ho').
  specialize (IH Hr). pose proof (H o (or_introl eq_refl)) as Ho.
  destruct o as [|p [|q o']]; [| |simpl in Ho; lia].
  - simpl. exact IH.
  - simpl. unfold part_of at 1. destruct (assoc p m) as [h|] eqn:E; simpl.
    + rewrite E. simpl. rewrite IH. reflexivity.
    + exact IH.
Qed.

Lemma opt_items_inj {Y} (item : N -> N -> Y) (key : Y -> N) (m m' : mapping) ps :
  (forall p h, key (item p h) = p) -> (forall p h h', item p h = item p h' -> h = h') -> NoDup ps ->
  flat_map (fun p => match assoc p m with Some h => [item p h] | None => [] end) ps =
  flat_map (fun p => match assoc p m' with Some h => [item p h] | None => [] end) ps ->
  forall p, In p ps -> assoc p m = assoc p m'.
Proof.
  intros Hkey Hinj. induction 1 as [|a r Ha Hnd IH]; intros E p Hp; [destruct Hp|]. simpl in E.
  assert (Hhead : forall (mm : mapping) e,
            In e (flat_map (fun p => match assoc p mm with Some h => [item p h] | None => [] end) r) -> key e <> a).
  { intros mm e He Hk. apply in_flat_map in He. destruct He as (q & Hq & He).
    destruct (assoc q mm); [|destruct He]. destruct He as [<-|[]]. rewrite Hkey in Hk. subst q. contradiction. }
  destruct (assoc a m) as [h|] eqn:E1; destruct (assoc a m') as [h'|] eqn:E2; simpl in E.
  - injection E as Eh Et. apply Hinj in Eh. destruct Hp as [<-|Hp]; [congruence | exact (IH Et p Hp)].
  - exfalso. apply (Hhead m' (item a h)); [rewrite <- E; left; reflexivity | apply Hkey].
  - exfalso. apply (Hhead m (item a h')); [rewrite E; left; reflexivity | apply Hkey].
  - destruct Hp as [<-|Hp]; [congruence | exact (IH E p Hp)].
Qed.

Lemma parts_inj m m' ps : NoDup ps ->
  flat_map (part_of m) ps = flat_map (part_of m') ps -> forall p, In p ps -> assoc p m = assoc p m'.
Proof.
  apply (opt_items_inj (fun p h => ([p], [h])) (fun y => hd 0%N (fst y))); [reflexivity|]. intros p h h' [= E]. exact E.
Qed.

Lemma anchor_sig_inj m m' ps : NoDup ps ->
  anchor_sig m ps = anchor_sig m' ps -> forall p, In p ps -> assoc p m = assoc p m'.
Proof. apply (opt_items_inj (fun p h => (p, h)) fst); [reflexivity|]. intros p h h' [= E]. exact E. Qed.

Lemma ssorted_nodup l : ssorted l -> NoDup l.
Proof.
  induction l as [|x r IH]; simpl; [constructor|]. intros [Hx Hr]. constructor; [|exact (IH Hr)].
  intros Hin. specialize (Hx x Hin). lia.
Qed.

(** equal lookups on all keys of both dictionaries = same items *)
Lemma same_lookups_same_items (m m' : mapping) (cov : N -> Prop) :
  NoDup (map fst m) -> NoDup (map fst m') ->
  (forall p h, In (p, h) m -> cov p) -> (forall p h, In (p, h) m' -> cov p) ->
  (forall p, cov p -> assoc p m = assoc p m') ->
  forall ph, In ph m <-> In ph m'.
Proof.
  intros N1 N2 C1 C2 H [p h]. split; intros Hin.
  - apply assoc_in. rewrite <- (H p (C1 p h Hin)). apply assoc_nodup_in; assumption.
  - apply assoc_in. rewrite (H p (C2 p h Hin)). apply assoc_nodup_in; assumption.
Qed.

Lemma signature_small_inj (free : list (list N)) (anchored : list N) (m m' : mapping) (s : sig) :
  (forall o, In o free -> (length o <= 1)%nat) -> NoDup (concat free) -> NoDup anchored ->
  NoDup (map fst m) -> NoDup (map fst m') ->
  (forall p h, In (p, h) m -> In p (concat free) \/ In p anchored) ->
  (forall p h, In (p, h) m' -> In p (concat free) \/ In p anchored) ->
  signature (match free, anchored with [], [] => false | _, _ => true end) free anchored None m = Some s ->
  signature (match free, anchored with [], [] => false | _, _ => true end) free anchored None m' = Some s ->
  forall ph, In ph m <-> In ph m'.
Proof.
  intros Hsmall Hnd Hanch Nx Ny Cx Cy Es Ey.
  destruct (match free, anchored with [], [] => false | _, _ => true end) eqn:Eu.
  - unfold signature in Es, Ey.
    rewrite (free_sig_small m free Hsmall) in Es. rewrite (free_sig_small m' free Hsmall) in Ey.
    inversion Es as [Es']. inversion Ey as [Ey'']. rewrite <- Ey'' in Es'. inversion Es' as [[Ef Ea]].
    apply (same_lookups_same_items m m' (fun p => In p (concat free) \/ In p anchored)); try assumption.
    intros p [Hp|Hp].
    + exact (parts_inj m m' (concat free) Hnd Ef p Hp).
    + exact (anchor_sig_inj m m' anchored Hanch Ea p Hp).
  - assert (free = [] /\ anchored = []) as [-> ->].
    { destruct free; destruct anchored; try discriminate. split; reflexivity. }
    assert (Ex : m = []).
    { destruct m as [|[p h] r]; [reflexivity|]. destruct (Cx p h (or_introl eq_refl)) as [[]|[]]. }
    assert (Ey' : m' = []).
    { destruct m' as [|[p h] r]; [reflexivity|]. destruct (Cy p h (or_introl eq_refl)) as [[]|[]]. }
    rewrite Ex, Ey'. tauto.
Qed.

Theorem dedup_singletons_sound (X : Type) (key : X -> mapping) (xs : list X) (porbs : list (list N)) (anchor : list N)
        (out : list X) :
  let free := fst (prepare (Some porbs) anchor) in
  let anchored := snd (prepare (Some porbs) anchor) in
  (forall o, In o free -> (length o <= 1)%nat) ->
  NoDup (concat free) ->
  (forall x, In x xs -> NoDup (map fst (key x)) /\
                        forall p h, In (p, h) (key x) -> In p (concat free) \/ In p anchored) ->
  dedup_anchor key xs (Some porbs) anchor None = Some out ->
  forall x, In x xs -> exists y, In y out /\ forall ph, In ph (key x) <-> In ph (key y).
Proof.
  intros free anchored Hsmall Hnd Hcov H x Hx.
  pose proof (proj1 (dedup_sublist_all X key xs) (Some porbs) anchor None out H) as Hsub.
  rewrite dedup_anchor_sig in H.
  destruct (dedup_sig_go_repr key (anchor_signature (Some porbs) anchor None) xs [] out H x Hx)
    as (s & Es & [[]|(y & Hy & Ey)]).
  exists y. split; [exact Hy|].
  assert (Hyin : In y xs) by exact (subseq_in out xs y Hsub Hy).
  destruct (Hcov x Hx) as [Nx Cx]. destruct (Hcov y Hyin) as [Ny Cy].
  assert (Hanch : NoDup anchored).
  { unfold anchored. simpl. apply ssorted_nodup, canonN_ssorted. }
  unfold anchor_signature in Es, Ey.
  assert (Eprep : prepare (Some porbs) anchor = (free, anchored)) by (unfold free, anchored; destruct (prepare _ _); reflexivity).
  rewrite Eprep in Es, Ey.
  exact (signature_small_inj free anchored (key x) (key y) s Hsmall Hnd Hanch Nx Ny Cx Cy Es Ey).
Qed.

(** ---------- outside the safe region: unrelated matches are merged ---------- *)
(** the path a-b-c-d (ids 1-2-3-4), all atoms alike: exact orbits {1,4}, {2,3}, the only symmetry is the mirror.  The
    matches m = (1,2,3,4) -> (11,12,13,14) and m' = (1,2,3,4) -> (14,12,13,11) hit the same image set in every orbit, so
    the second is dropped - but no automorphism of the pattern turns one into the other (b and c stay, a and d swap). *)
Definition ex_p4 : graph :=
  LG [(1%N, (0%N, 0%N, 0%N)); (2%N, (0%N, 0%N, 0%N)); (3%N, (0%N, 0%N, 0%N)); (4%N, (0%N, 0%N, 0%N))]
     [(1%N, 2%N, (0%N, 0%N)); (2%N, 3%N, (0%N, 0%N)); (3%N, 4%N, (0%N, 0%N))].
Definition ex_m1 : mapping := [(1, 11); (2, 12); (3, 13); (4, 14)]%N.
Definition ex_m2 : mapping := [(1, 14); (2, 12); (3, 13); (4, 11)]%N.

Theorem dedup_orbit_sets_merge_unrelated :
  let O := a_orbits (analyze n_exact e_order ex_p4) in
  wfb ex_p4 = true /\ O = [[2; 3]; [1; 4]]%N /\
  dedup_anchor (fun m : mapping => m) [ex_m1; ex_m2] (Some O) [] None = Some [ex_m1] /\
  length (auts n_exact e_order ex_p4) = 2%nat /\
  (forall s, In s (auts n_exact e_order ex_p4) -> set_eqb ex_m2 (act s ex_m1) = false) /\
  set_eqb ex_m2 ex_m1 = false.
Proof.
  split; [vm_compute; reflexivity|]. split; [vm_compute; reflexivity|]. split; [vm_compute; reflexivity|].
  split; [vm_compute; reflexivity|]. split; [|vm_compute; reflexivity].
  intros s Hs. vm_compute in Hs. destruct Hs as [<-|[<-|[]]]; vm_compute; reflexivity.
Qed.

(** non-vacuity of the safe region: the same pattern with one atom relabelled (no symmetry left: every orbit a singleton) -
    both matches are kept, and the premises of the theorem hold *)
Definition ex_p4o : graph :=
  LG [(1%N, (7%N, 7%N, 7%N)); (2%N, (0%N, 0%N, 0%N)); (3%N, (0%N, 0%N, 0%N)); (4%N, (0%N, 0%N, 0%N))]
     [(1%N, 2%N, (0%N, 0%N)); (2%N, 3%N, (0%N, 0%N)); (3%N, 4%N, (0%N, 0%N))].
Example ex_singletons :
  let O := a_orbits (analyze n_exact e_order ex_p4o) in
  O = [[1]; [2]; [3]; [4]]%N /\
  prepare (Some O) [] = ([[1]; [2]; [3]; [4]]%N, []) /\
  dedup_anchor (fun m : mapping => m) [ex_m1; ex_m2; ex_m1] (Some O) [] None = Some [ex_m1; ex_m2].
Proof. vm_compute. repeat split. Qed.
