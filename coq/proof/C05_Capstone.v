(** C05 — the set-level theorem from the TEMPLATE (implicit-hydrogen mode, and the default configuration
    for hydrogen-free templates); the per-writing premise [side_ok_c] (proof/C05_AllStrat.v) is itself invariant under renumbering, so that for a
    writing accepted by the monitors the set-level theorems need nothing that the run function has not evaluated. *)
From Coq Require Import List ZArith.
From SK Require Import lib.LGraph.
From SK Require Import model.C03_Model model.C05_Model proof.C05_Proof proof.C05_Pipe proof.C05_Comp proof.C05_Order proof.C05_Set proof.C05_Result proof.C05_AllStrat proof.C05_Cap proof.C05_AnyCap proof.C05_Prep proof.C05_PrepOrder proof.C05_Default proof.C05_Rewrite.
Import ListNotations.
Local Open Scope nat_scope.

Section WithThr.
Context {TH : Thr}.


Section BoundEquiv.
  Variables sg pi : N -> N.
  Hypothesis sg_inj : inj sg.
  Hypothesis pi_inj : inj pi.
  Variables enum enum' : list N -> list N -> list C06_Model.mapping.
  Hypothesis Henum : forall hn pn, enum' (map pi hn) (map sg pn) = map (mv sg pi) (enum hn pn).
  Variable H P : C06_Model.graph.

  Lemma c_percc_of_relabel pc :
    c_percc_of enum' (relabel pi H) (map sg pc) = map (tag sg pi) (c_percc_of enum H pc).
  Proof.
    unfold c_percc_of, c_cands, c_percc. rewrite (comps_relabel pi pi_inj H), (index_from_map (map pi) (C06_Model.comps H) 0).
    rewrite map_length.
    change (map (fun ix : nat * list N => (fst ix, map pi (snd ix))) (C06_Model.index_from 0 (C06_Model.comps H)))
      with (map (tagc pi) (C06_Model.index_from 0 (C06_Model.comps H))).
    rewrite (filter_len_map pi (length pc) (C06_Model.index_from 0 (C06_Model.comps H))).
    rewrite flat_map_map', map_flat_map'. apply flat_map_ext. intros [i hc]. unfold tagc; simpl.
    rewrite Henum, !map_map. reflexivity.
  Qed.

  Lemma c_bt_unl_map ordered : forall used acc,
    c_bt_unl (map (map (tag sg pi)) ordered) used (mv sg pi acc) = map (mv sg pi) (c_bt_unl ordered used acc).
  Proof.
    induction ordered as [|lvl rest IH]; intros used acc; simpl; [reflexivity|].
    rewrite flat_map_map', map_flat_map'. apply flat_map_ext. intros [hi m]. unfold tag; simpl.
    rewrite (clash_mv sg pi sg_inj). destruct (C06_Model.memnat hi used || C06_Model.clash m acc)%bool; [reflexivity|].
    replace (mv sg pi m ++ mv sg pi acc) with (mv sg pi (m ++ acc)) by (unfold mv; rewrite map_app; reflexivity).
    apply IH.
  Qed.

  Lemma c_comp_bound_relabel :
    c_comp_bound enum' true (relabel pi H) (relabel sg P) = c_comp_bound enum true H P.
  Proof.
    unfold c_comp_bound. rewrite (comps_relabel sg sg_inj P), map_map.
    assert (E1 : map (fun pc => C06_Model.lenN (c_percc_of enum' (relabel pi H) (map sg pc))) (C06_Model.comps P)
                 = map (fun pc => C06_Model.lenN (c_percc_of enum H pc)) (C06_Model.comps P)).
    { apply map_ext. intros pc. rewrite c_percc_of_relabel. unfold C06_Model.lenN. rewrite map_length. reflexivity. }
    rewrite E1. f_equal.
    unfold c_comp_unl. rewrite (comps_relabel pi pi_inj H), (comps_relabel sg sg_inj P), !map_length.
    destruct (length (C06_Model.comps P) =? 0); [reflexivity|].
    destruct (length (C06_Model.comps H) <? length (C06_Model.comps P)).
    - rewrite !node_ids_relabel, Henum. unfold C06_Model.lenN. rewrite map_length. reflexivity.
    - destruct ((length (C06_Model.comps P) <? length (C06_Model.comps H)) && true)%bool; [reflexivity|].
      rewrite map_map.
      assert (E2 : map (fun pc => c_percc_of enum' (relabel pi H) (map sg pc)) (C06_Model.comps P)
                   = map (map (tag sg pi)) (map (c_percc_of enum H) (C06_Model.comps P))).
      { rewrite map_map. apply map_ext. intros pc. apply c_percc_of_relabel. }
      rewrite E2, (sort_len_map (tag sg pi)).
      pose proof (c_bt_unl_map (C06_Model.sort_len (map (c_percc_of enum H) (C06_Model.comps P))) [] []) as Hb.
      simpl (mv sg pi []) in Hb. rewrite Hb. unfold C06_Model.lenN. rewrite map_length. reflexivity.
  Qed.
End BoundEquiv.

(** the premises of one writing hold for the renumbered writing *)
Lemma side_okb_c_relabel sg pi (Hs : inj sg) (Hp : inj pi) (host : hostg) (p : prepared) :
  side_okb_c host p = true -> side_ok_c (relabel pi host) (relabel_prep sg p).
Proof.
  intros Hb. unfold side_okb_c, side_okb_c_with in Hb. apply andb_prop in Hb. destruct Hb as [Hb1 Hb2].
  pose proof (side_okb_ok host p Hb1) as S.
  assert (Henum : forall hn pn, monos_on' (relabel pi (host_c06 host)) (relabel sg (pat_c06 (p_pat p))) (map pi hn) (map sg pn)
                                = map (mv sg pi) (monos_on' (host_c06 host) (pat_c06 (p_pat p)) hn pn))
    by (intros; apply monos_on'_relabel; assumption).
  split.
  - apply side_ok_of0; [apply side_ok0_relabel; [exact Hs | exact Hp | apply side_ok_ok0; exact S] |].
    unfold relabel_prep; cbn [p_pat]. rewrite (enum_all_count_relabel sg pi Hs Hp). exact (so_count _ _ S).
  - unfold relabel_prep; cbn [p_pat]. rewrite host_c06_relabel, pat_c06_relabel.
    rewrite <- (comp_bound_ext (monos_on' (relabel pi (host_c06 host)) (relabel sg (pat_c06 (p_pat p)))) _ true _ _
                  (fun hn pn => monos_on'_eq _ _ hn pn)).
    rewrite <- c_comp_bound_eq.
    rewrite (c_comp_bound_relabel sg pi Hs Hp (monos_on' (host_c06 host) (pat_c06 (p_pat p))) _ Henum).
    apply N.leb_le. exact Hb2.
Qed.

(** ** from the TEMPLATE, implicit-hydrogen mode: for every strategy, any renumbering and re-ordering of substrate and
    template, the pipeline returns the same set of glued ITS graphs *)
Lemma pipeline_glued inv strat host tpl p :
  prepare inv true tpl = Some p -> pipeline inv true false strat host tpl = Some (glued_of strat host p).
Proof. intros H. unfold pipeline. rewrite H. reflexivity. Qed.

Theorem pipeline_set_invariant (strat : N) (sg pi : N -> N) (inv : bool)
        (host host'' : hostg) (tpl tpl'' : its) (p : prepared) :
  is_strat strat -> inj sg -> inj pi ->
  prepare inv true tpl = Some p -> p_flag p = false ->
  simple_edgesb (gedges tpl) = true -> simple_edgesb (gedges tpl'') = true ->
  same_graph (relabel pi host) host'' -> same_graph (relabel sg tpl) tpl'' ->
  exists p'', prepare inv true tpl'' = Some p'' /\ p_flag p'' = false /\
    pipeline inv true false strat host tpl = Some (glued_of strat host p) /\
    pipeline inv true false strat host'' tpl'' = Some (glued_of strat host'' p'') /\
    (side_ok_c (relabel pi host) (relabel_prep sg p) -> side_ok_c host'' p'' ->
     (forall T, In T (glued_of strat host p) -> exists T'', In T'' (glued_of strat host'' p'') /\ obs_eq (relabel pi T) T'') /\
     (forall T'', In T'' (glued_of strat host'' p'') -> exists T, In T (glued_of strat host p) /\ obs_eq (relabel pi T) T'')).
Proof.
  intros Hst Hs Hp Hprep Hflag Hw Hw'' Hh Ht.
  pose proof (prepare_relabel sg Hs inv tpl p Hprep Hflag) as Hprep_r.
  assert (Hw_r : simple_edgesb (gedges (relabel sg tpl)) = true)
    by (unfold relabel; simpl; rewrite (simple_relabel sg Hs); exact Hw).
  destruct (prepare_same inv (relabel sg tpl) tpl'' (relabel_prep sg p) Ht Hw_r Hw'' Hprep_r Hflag)
    as (p'' & Hprep'' & Hflag'' & Hrc & Hpat).
  exists p''. split; [exact Hprep''|]. split; [exact Hflag''|].
  split; [apply pipeline_glued; exact Hprep|]. split; [apply pipeline_glued; exact Hprep''|].
  intros S S''. exact (glued_set_rewriting_any strat sg pi Hs Hp host host'' p p'' Hst S S'' Hh Hrc Hpat).
Qed.

(** ** the default configuration (explicit_h=True, implicit_temp=False), templates without hydrogen atoms *)
Lemma pipeline_default inv strat host (tpl : its) :
  nodupb (node_ids tpl) = true -> noHb tpl = true -> nohp tpl ->
  pipeline inv false true strat host tpl = Some (glued_of strat host (prep_default inv tpl)).
Proof.
  intros Hnd Hno Hhp. unfold pipeline. rewrite (prepare_default inv tpl Hnd Hno). apply results_default. exact Hhp.
Qed.

Theorem pipeline_default_set_invariant (strat : N) (sg pi : N -> N) (inv : bool)
        (host host'' : hostg) (tpl tpl'' : its) :
  is_strat strat -> inj sg -> inj pi ->
  nodupb (node_ids tpl) = true -> noHb tpl = true -> nohp tpl -> simple_edgesb (gedges tpl) = true ->
  nodupb (node_ids tpl'') = true -> noHb tpl'' = true -> nohp tpl'' -> simple_edgesb (gedges tpl'') = true ->
  same_graph (relabel pi host) host'' -> same_graph (relabel sg tpl) tpl'' ->
  pipeline inv false true strat host tpl = Some (glued_of strat host (prep_default inv tpl)) /\
  pipeline inv false true strat host'' tpl'' = Some (glued_of strat host'' (prep_default inv tpl'')) /\
  (side_ok_c (relabel pi host) (relabel_prep sg (prep_default inv tpl)) -> side_ok_c host'' (prep_default inv tpl'') ->
   (forall T, In T (glued_of strat host (prep_default inv tpl)) ->
      exists T'', In T'' (glued_of strat host'' (prep_default inv tpl'')) /\ obs_eq (relabel pi T) T'') /\
   (forall T'', In T'' (glued_of strat host'' (prep_default inv tpl'')) ->
      exists T, In T (glued_of strat host (prep_default inv tpl)) /\ obs_eq (relabel pi T) T'')).
Proof.
  intros Hst Hs Hp Hnd Hno Hhp Hw Hnd'' Hno'' Hhp'' Hw'' Hh Ht.
  split; [apply pipeline_default; assumption|]. split; [apply pipeline_default; assumption|].
  intros S S''.
  assert (Hw_r : simple_edgesb (gedges (relabel sg tpl)) = true)
    by (unfold relabel; simpl; rewrite (simple_relabel sg Hs); exact Hw).
  destruct (prep_default_same inv (relabel sg tpl) tpl'' Ht Hw_r Hw'') as [Hrc Hpat].
  rewrite (prep_default_relabel sg Hs inv tpl) in Hrc, Hpat.
  exact (glued_set_rewriting_any strat sg pi Hs Hp host host'' (prep_default inv tpl) (prep_default inv tpl'') Hst S S'' Hh Hrc Hpat).
Qed.

(** ** capstones: nothing is assumed about a writing that the run function has not evaluated *)

(** prepared rules, every strategy: [side_okb_c] on the base writing and on the other writing, as evaluated *)
Theorem glued_set_checked strat (sg pi : N -> N) (Hs : inj sg) (Hp : inj pi) (host0 host : hostg) (p0 p : prepared) :
  is_strat strat -> side_okb_c host0 p0 = true -> side_okb_c host p = true ->
  same_graph (relabel pi host0) host -> same_graph (relabel sg (p_rc p0)) (p_rc p) -> same_graph (relabel sg (p_pat p0)) (p_pat p) ->
  (forall T, In T (glued_of strat host0 p0) -> exists T', In T' (glued_of strat host p) /\ obs_eq (relabel pi T) T') /\
  (forall T', In T' (glued_of strat host p) -> exists T, In T (glued_of strat host0 p0) /\ obs_eq (relabel pi T) T').
Proof.
  intros Hst S0 S Hh Hr Hpt.
  exact (glued_set_rewriting_any strat sg pi Hs Hp host0 host p0 p Hst (side_okb_c_relabel sg pi Hs Hp host0 p0 S0) (side_okb_c_ok _ _ S) Hh Hr Hpt).
Qed.

(** from the template, implicit-hydrogen mode: a writing accepted by [rewriting_okb], [side_okb_c] on both writings *)
Theorem pipeline_checked_implicit strat inv (host0 host : hostg) (tpl0 tpl : its) (pi sg : list (N * N)) (p0 : prepared) :
  is_strat strat ->
  rewriting_okb host0 tpl0 (host, tpl, pi, sg) = true ->
  prepare inv true tpl0 = Some p0 -> p_flag p0 = false -> side_okb_c host0 p0 = true ->
  exists p, prepare inv true tpl = Some p /\ p_flag p = false /\
    pipeline inv true false strat host0 tpl0 = Some (glued_of strat host0 p0) /\
    pipeline inv true false strat host tpl = Some (glued_of strat host p) /\
    (side_okb_c host p = true ->
     (forall T, In T (glued_of strat host0 p0) -> exists T', In T' (glued_of strat host p) /\ obs_eq (relabel (apply_map pi) T) T') /\
     (forall T', In T' (glued_of strat host p) -> exists T, In T (glued_of strat host0 p0) /\ obs_eq (relabel (apply_map pi) T) T')).
Proof.
  intros Hst Hrw Hprep Hflag S0.
  destruct (rewriting_okb_ok host0 host tpl0 tpl pi sg Hrw) as (Ipi & Isg & Hh & Ht & Hw0 & Hw).
  destruct (pipeline_set_invariant strat (apply_map sg) (apply_map pi) inv host0 host tpl0 tpl p0 Hst Isg Ipi Hprep Hflag Hw0 Hw Hh Ht)
    as (p & A & B & C & D & E).
  exists p. split; [exact A|]. split; [exact B|]. split; [exact C|]. split; [exact D|].
  intros S. exact (E (side_okb_c_relabel (apply_map sg) (apply_map pi) Isg Ipi host0 p0 S0) (side_okb_c_ok _ _ S)).
Qed.

Theorem pipeline_checked_default strat inv (host0 host : hostg) (tpl0 tpl : its) (pi sg : list (N * N)) :
  is_strat strat ->
  rewriting_okb host0 tpl0 (host, tpl, pi, sg) = true ->
  nodupb (node_ids tpl0) = true -> noHb tpl0 = true -> nohp tpl0 ->
  nodupb (node_ids tpl) = true -> noHb tpl = true -> nohp tpl ->
  side_okb_c host0 (prep_default inv tpl0) = true -> side_okb_c host (prep_default inv tpl) = true ->
  pipeline inv false true strat host0 tpl0 = Some (glued_of strat host0 (prep_default inv tpl0)) /\
  pipeline inv false true strat host tpl = Some (glued_of strat host (prep_default inv tpl)) /\
  (forall T, In T (glued_of strat host0 (prep_default inv tpl0)) ->
     exists T', In T' (glued_of strat host (prep_default inv tpl)) /\ obs_eq (relabel (apply_map pi) T) T') /\
  (forall T', In T' (glued_of strat host (prep_default inv tpl)) ->
     exists T, In T (glued_of strat host0 (prep_default inv tpl0)) /\ obs_eq (relabel (apply_map pi) T) T').
Proof.
  intros Hst Hrw A1 A2 A3 B1 B2 B3 S0 S.
  destruct (rewriting_okb_ok host0 host tpl0 tpl pi sg Hrw) as (Ipi & Isg & Hh & Ht & Hw0 & Hw).
  destruct (pipeline_default_set_invariant strat (apply_map sg) (apply_map pi) inv host0 host tpl0 tpl Hst Isg Ipi A1 A2 A3 Hw0 B1 B2 B3 Hw Hh Ht)
    as (P1 & P2 & P3).
  split; [exact P1|]. split; [exact P2|].
  exact (P3 (side_okb_c_relabel (apply_map sg) (apply_map pi) Isg Ipi host0 (prep_default inv tpl0) S0) (side_okb_c_ok _ _ S)).
Qed.

End WithThr.
