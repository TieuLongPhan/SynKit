(** C10 — proofs: ITS -> GML -> ITS with reindex=True (the default of its_to_gml): the round trip holds up to
    the documented renumbering old id -> position (from 1) in the node order. *)
From Coq Require Import String List NArith ZArith Bool Lia.
From SK Require Import lib.LGraph lib.StrJoin model.C10_Model proof.C10_Proof proof.C10_Views proof.C10_Build
  proof.C10_Copy proof.C10_GmlRead proof.C10_GmlWrite proof.C10_Relabel.
Import ListNotations.
Local Open Scope Z_scope.

Lemma fold_nstep_node_ids F l : forall g : gr, NoDup (map fst l) ->
  (forall k, In k (map fst l) -> has_node g k = false) ->
  node_ids (fold_left (nstep F) l g) = node_ids g ++ map fst l.
Proof.
  induction l as [|[k a] r IH]; intros g Hnd Hf; [simpl; rewrite app_nil_r; reflexivity|].
  inversion Hnd as [|? ? Hnot Hnd']; subst. cbn [fold_left]. rewrite IH; [| exact Hnd' |].
  - unfold nstep at 1. simpl fst. rewrite node_ids_add_node, (Hf k) by (left; reflexivity).
    rewrite <- app_assoc. reflexivity.
  - intros k' Hk'. unfold nstep. simpl fst. rewrite has_node_add_node, (Hf k') by (right; exact Hk').
    destruct (N.eqb_spec k' k) as [->|]; [contradiction|reflexivity].
Qed.

Lemma side_graph_node_ids c j : IOK c -> node_ids (side_graph c j) = node_ids c.
Proof.
  intros Hok. unfold node_ids at 1. rewrite side_graph_gnodes by exact Hok. fold (node_ids (side_nodes c (if j then tH_of else tG_of))).
  unfold side_nodes. rewrite fold_nstep_node_ids; [reflexivity|apply (gwf_nd c (iok_gwf c Hok))|reflexivity].
Qed.

Lemma its_to_gml_rec_reindex c : IOK c ->
  its_to_gml c false true false =
  let m := enum_from 1%N (node_ids c) in
  let sL := nx_relabel m (side_graph c false) in
  let sR := nx_relabel m (side_graph c true) in
  let c' := nx_relabel m c in
  let ch := find_changed sL sR in
  [(SLeft, side_entries sL ch); (SContext, context_entries c' ch false); (SRight, side_entries sR ch)].
Proof.
  intros Hok. unfold its_to_gml. rewrite its_decompose_sides by exact Hok. unfold nx_to_gml.
  rewrite (side_graph_node_ids c false Hok). reflexivity.
Qed.

Section Reindex.
Variable c : gr.
Hypothesis Hok : IOK c.
Let ids := node_ids c.
Let m := enum_from 1%N ids.
Let f := mapget m.
Let Wc := iok_gwf c Hok.

Lemma f_inj a b : In a ids -> In b ids -> f a = f b -> a = b.
Proof. apply enum_from_inj. apply (gwf_nd c Wc). Qed.
Let ids_nd : NoDup ids := gwf_nd c Wc.
Let Hm : forall n, mapget m n = f n := fun n => eq_refl.

Definition RL (g : gr) : gr := nx_relabel m g.
Lemma RL_gwf g : gwf g -> node_ids g = ids -> gwf (RL g).
Proof. intros W E. apply (relabel_gwf f ids ids_nd f_inj g W E m Hm). Qed.
Lemma RL_label g k : gwf g -> node_ids g = ids ->
  label (RL g) k = match finv f ids k with Some n => label g n | None => None end.
Proof. intros W E. apply (relabel_label f ids ids_nd f_inj g W E m Hm). Qed.
Lemma RL_adj g k l : gwf g -> node_ids g = ids ->
  adj (RL g) k l = match finv f ids k, finv f ids l with Some u, Some v => adj g u v | _, _ => None end.
Proof. intros W E. apply (relabel_adj f ids ids_nd f_inj g W E m Hm). Qed.

Lemma RL_IOK : IOK (RL c).
Proof.
  split; [apply RL_gwf; [exact Wc|reflexivity]|split].
  - intros k a L. rewrite RL_label in L by (try exact Wc; reflexivity).
    destruct (finv f ids k) as [n|]; [|discriminate]. apply (iok_node c n a Hok L).
  - intros k l x A. destruct (adj_ends _ k l x (RL_gwf c Wc eq_refl) A) as [Hk Hl]. rewrite RL_adj in A by (try exact Wc; reflexivity).
    destruct (finv f ids k) as [u|]; [|discriminate]. destruct (finv f ids l) as [v|]; [|discriminate].
    destruct (iok_edge c u v x Hok A) as (a & b & E & O1 & O2 & O3 & _). exists a, b. repeat split; auto.
Qed.

Lemma RL_side j : side_like (RL c) j (RL (side_graph c j)).
Proof.
  pose proof (side_graph_like c j Hok) as SL. pose proof (side_graph_node_ids c j Hok) as E. pose proof (sl_wf _ _ _ SL) as Ws.
  split.
  - apply RL_gwf; assumption.
  - intros k L. rewrite RL_label in L by (try exact Wc; reflexivity). rewrite RL_label by assumption.
    destruct (finv f ids k) as [n|]; [|reflexivity]. apply (sl_none _ _ _ SL n L).
  - intros k a L. rewrite RL_label in L by (try exact Wc; reflexivity). rewrite RL_label by assumption.
    destruct (finv f ids k) as [n|]; [|discriminate]. apply (sl_some _ _ _ SL n a L).
  - intros k l. rewrite RL_adj by assumption. unfold dd. rewrite RL_adj by (try exact Wc; reflexivity).
    destruct (finv f ids k) as [u|]; [|reflexivity]. destruct (finv f ids l) as [v|]; [|reflexivity].
    rewrite (sl_adj _ _ _ SL). reflexivity.
Qed.

Lemma RL_transfer (I' : gr) :
  (forall n, has_node I' n = has_node (RL c) n) ->
  (forall n a, label (RL c) n = Some a ->
     label I' n = Some (gml_node n (tg_el (tG_of a)) (tg_ch (tG_of a)) (tg_ch (tH_of a)))) ->
  (forall u v, adj I' u v = adj (RL c) u v) ->
  (forall k, has_node I' k = true <-> exists n, In n ids /\ k = f n) /\
  (forall n a, label c n = Some a ->
     label I' (f n) = Some (gml_node (f n) (tg_el (tG_of a)) (tg_ch (tG_of a)) (tg_ch (tH_of a)))) /\
  (forall u v, In u ids -> In v ids -> adj I' (f u) (f v) = adj c u v) /\
  (forall k l x, adj I' k l = Some x -> exists u v, In u ids /\ In v ids /\ k = f u /\ l = f v /\ adj c u v = Some x).
Proof.
  intros P1 P2 P3. destruct (relabel_lookups f ids ids_nd f_inj c Wc eq_refl m Hm) as (L1 & L2 & L3 & L4). fold (RL c) in L1, L2, L3, L4.
  split; [|split; [|split]].
  - intros k. rewrite P1. apply L1.
  - intros n a L. apply P2. rewrite L2; [exact L|]. apply has_node_in, has_node_label. eauto.
  - intros u v Hu Hv. rewrite P3. apply L3; assumption.
  - intros k l x A. rewrite P3 in A. apply (L4 k l x A).
Qed.

Theorem gml_roundtrip_reindex_iok :
  let I' := gml_to_its (its_to_gml c false true false) in
  (forall a b, In a ids -> In b ids -> f a = f b -> a = b) /\
  (forall k, has_node I' k = true <-> exists n, In n ids /\ k = f n) /\
  (forall n a, label c n = Some a ->
     label I' (f n) = Some (gml_node (f n) (tg_el (tG_of a)) (tg_ch (tG_of a)) (tg_ch (tH_of a)))) /\
  (forall u v, In u ids -> In v ids -> adj I' (f u) (f v) = adj c u v) /\
  (forall k l x, adj I' k l = Some x -> exists u v, In u ids /\ In v ids /\ k = f u /\ l = f v /\ adj c u v = Some x).
Proof.
  intros I'. unfold I', gml_to_its. rewrite its_to_gml_rec_reindex by exact Hok. cbv zeta. split; [exact f_inj|].
  destruct (gml_pipeline (RL c) (RL (side_graph c false)) (RL (side_graph c true)) RL_IOK (RL_side false) (RL_side true))
    as (P1 & P2 & P3). apply (RL_transfer _ P1 P2 P3).
Qed.
End Reindex.

Theorem gml_roundtrip_reindex c : its_ok c = true ->
  let f := mapget (enum_from 1%N (node_ids c)) in
  let I' := gml_to_its (its_to_gml c false true false) in
  (forall a b, In a (node_ids c) -> In b (node_ids c) -> f a = f b -> a = b) /\
  (forall k, has_node I' k = true <-> exists n, In n (node_ids c) /\ k = f n) /\
  (forall n a, label c n = Some a ->
     label I' (f n) = Some (gml_node (f n) (tg_el (tG_of a)) (tg_ch (tG_of a)) (tg_ch (tH_of a)))) /\
  (forall u v, In u (node_ids c) -> In v (node_ids c) -> adj I' (f u) (f v) = adj c u v) /\
  (forall k l x, adj I' k l = Some x ->
     exists u v, In u (node_ids c) /\ In v (node_ids c) /\ k = f u /\ l = f v /\ adj c u v = Some x).
Proof. intros H. apply (gml_roundtrip_reindex_iok c (its_ok_IOK c H)). Qed.

(** non-vacuity: the centre of proof/C10_GmlWrite.v, ids 10, 20, 30 become 1, 2, 3 *)
Example gml_roundtrip_reindex_ex :
  its_ok ex_centre = true /\
  map (mapget (enum_from 1%N (node_ids ex_centre))) [10; 20; 30]%N = [1; 2; 3]%N /\
  label (gml_to_its (its_to_gml ex_centre false true false)) 2%N = Some (gml_node 2%N (s2l "O") 0 (-1)) /\
  adj (gml_to_its (its_to_gml ex_centre false true false)) 1%N 3%N = Some (EA (Some (OP 0 2)) (Some (-2))).
Proof. vm_compute. repeat split. Qed.
