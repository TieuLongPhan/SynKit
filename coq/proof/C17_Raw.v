(** C17 — the attribute layer (model/C17_RawModel.v): what [normalise] — hence every label, index and matrix computed from a
    caller-supplied graph — depends on.  Two raw graphs whose nodes agree, position by position, on identifier, on the two
    classification tests and on the effective label, and whose edges agree on end points, role and effective coefficient, are
    normalised to the SAME node-level graph (and raise KeyError alike): it does not matter WHICH of kind / bipartite carries the
    classification, whether a label is written out or falls back to the identifier, or whether a coefficient 1 is written out.
    The fully annotated export of a network ([raw_export]) is normalised to the node-level export of model/C17_NodeModel.v, and an
    undirected graph that stores the edges of that export either way round is oriented back to it. *)
From Coq Require Import List ZArith Bool.
From SK Require Import lib.Tok model.C17_Model model.C17_NodeModel model.C17_RawModel proof.C17_Proof.
Import ListNotations.

Definition node_eqv (a b : rnode) : Prop :=
  rn_id a = rn_id b /\ species_like a = species_like b /\ reaction_like a = reaction_like b /\ label_of a = label_of b.

Definition eff_stoich (e : redge) : Z := match re_stoich e with Some c => c | None => 1%Z end.

Definition edge_eqv (e f : redge) : Prop :=
  re_u e = re_u f /\ re_v e = re_v f /\ re_role e = re_role f /\ eff_stoich e = eff_stoich f.

Inductive found_eqv : option rnode -> option rnode -> Prop :=
  | found_none : found_eqv None None
  | found_some a b : node_eqv a b -> found_eqv (Some a) (Some b).

Lemma find_node_eqv ns ns' u : Forall2 node_eqv ns ns' ->
  found_eqv (find (fun n => N.eqb (rn_id n) u) ns) (find (fun n => N.eqb (rn_id n) u) ns').
Proof.
  induction 1 as [|a b ns ns' Hab _ IH]; simpl; [constructor|].
  rewrite <- (proj1 Hab). destruct (N.eqb (rn_id a) u); [now constructor|exact IH].
Qed.

(** build_S_minus_plus's choice of (species end, reaction end) for an edge joining two nodes *)
Definition pick (u v : rnode) : option (rnode * rnode) :=
  if species_like u && reaction_like v then Some (u, v)
  else if species_like v && reaction_like u then Some (v, u)
  else None.

Lemma ends_pick G e :
  ends G e = match find_node G (re_u e), find_node G (re_v e) with Some u, Some v => pick u v | _, _ => None end.
Proof. reflexivity. Qed.

(** both undetermined, or both determined with equivalent species ends and equivalent reaction ends *)
Inductive ends_eqv_rel : option (rnode * rnode) -> option (rnode * rnode) -> Prop :=
  | ends_none : ends_eqv_rel None None
  | ends_some s r s' r' : node_eqv s s' -> node_eqv r r' -> ends_eqv_rel (Some (s, r)) (Some (s', r')).

Lemma pick_eqv u u' v v' : node_eqv u u' -> node_eqv v v' -> ends_eqv_rel (pick u v) (pick u' v').
Proof.
  intros Eu Ev. unfold pick.
  rewrite <- (proj1 (proj2 Eu)), <- (proj1 (proj2 (proj2 Eu))), <- (proj1 (proj2 Ev)), <- (proj1 (proj2 (proj2 Ev))).
  destruct (species_like u && reaction_like v); [now constructor|].
  destruct (species_like v && reaction_like u); now constructor.
Qed.

Lemma is_species_eqv a b : node_eqv a b -> is_species a = is_species b.
Proof. intros (_ & Hs & _ & _). exact Hs. Qed.

Lemma is_reaction_eqv a b : node_eqv a b -> is_reaction a = is_reaction b.
Proof. intros (_ & Hs & Hr & _). unfold is_reaction. now rewrite Hs, Hr. Qed.

Lemma bnode_of_eqv a b : node_eqv a b -> bnode_of a = bnode_of b.
Proof. intros (Hid & _ & _ & Hl). unfold bnode_of. now rewrite Hid, Hl. Qed.

Lemma filter_map_eqv (p : rnode -> bool) ns ns' :
  (forall a b, node_eqv a b -> p a = p b) -> Forall2 node_eqv ns ns' ->
  map bnode_of (filter p ns) = map bnode_of (filter p ns').
Proof.
  intros Hp. induction 1 as [|a b ns ns' Hab Hrest IH]; simpl; auto.
  rewrite (Hp a b Hab). destruct (p b); simpl; [rewrite (bnode_of_eqv a b Hab), IH|]; auto.
Qed.

Section Eqv.
  Variables G G' : rgraph.
  Hypothesis Hn : Forall2 node_eqv (rg_nodes G) (rg_nodes G').

  Lemma ends_eqv e f : edge_eqv e f -> ends_eqv_rel (ends G e) (ends G' f).
  Proof.
    intros (Hu & Hv & _). rewrite !ends_pick, <- Hu, <- Hv. unfold find_node.
    destruct (find_node_eqv _ _ (re_u e) Hn) as [|u u' Eu]; [constructor|].
    destruct (find_node_eqv _ _ (re_v e) Hn) as [|v v' Ev]; [constructor|].
    now apply pick_eqv.
  Qed.

  Lemma arc_of_eqv e f : edge_eqv e f -> arc_of G e = arc_of G' f.
  Proof.
    intros Hef. unfold arc_of. destruct (ends_eqv e f Hef) as [|s r s' r' (Hs & _) (Hr & _)]; [reflexivity|].
    destruct Hef as (_ & _ & Hro & Hst). unfold eff_stoich in Hst. now rewrite Hs, Hr, Hro, Hst.
  Qed.

  Lemma key_error_edge_eqv e f : edge_eqv e f ->
    match ends G e with Some (_, r) => negb (is_reaction r) | None => false end =
    match ends G' f with Some (_, r) => negb (is_reaction r) | None => false end.
  Proof.
    intros Hef. destruct (ends_eqv e f Hef) as [|s r s' r' _ Hr]; [reflexivity|]. now rewrite (is_reaction_eqv r r' Hr).
  Qed.

  Hypothesis He : Forall2 edge_eqv (rg_edges G) (rg_edges G').

  Theorem normalise_eqv : normalise G = normalise G' /\ key_error G = key_error G'.
  Proof.
    split.
    - unfold normalise. f_equal.
      + apply filter_map_eqv; auto using is_species_eqv.
      + apply filter_map_eqv; auto using is_reaction_eqv.
      + induction He as [|e f es fs Hef Hrest IH]; simpl; auto. now rewrite (arc_of_eqv e f Hef), IH.
    - unfold key_error. induction He as [|e f es fs Hef Hrest IH]; simpl; auto.
      now rewrite (key_error_edge_eqv e f Hef), IH.
  Qed.

  Corollary run_raw_eqv : run_raw G = run_raw G'.
  Proof. unfold run_raw. destruct normalise_eqv as [-> ->]. reflexivity. Qed.
End Eqv.

(** an edge without a usable role, or one that does not join a species-like to a reaction-like node, contributes nothing *)
Lemma arc_of_ignored G e : re_role e = None \/ ends G e = None -> arc_of G e = [].
Proof. unfold arc_of. intros [H|H]; rewrite H; auto. destruct (ends G e) as [[s r]|]; auto. Qed.

(** non-vacuity: A -> B written with full attributes, and the same graph with the classification carried by the bipartite flag
    only, labels left to the identifiers' strings and no coefficient — plus a node without attributes, an edge between the two
    species and a role-less edge: same labels, same matrices *)
Definition sA : str := [65%N].
Definition sB : str := [66%N].
Definition sr : str := [114%N].
Definition raw_full : rgraph :=
  RG [RNode 1 [49%N] (Some true) (Some true) (Some sA); RNode 2 [50%N] (Some true) (Some true) (Some sB);
      RNode 3 [51%N] (Some false) (Some false) (Some sr)]
     [REdge 1 3 (Some Reactant) (Some 1%Z); REdge 3 2 (Some Product) (Some 1%Z)].
Definition raw_bare : rgraph :=
  RG [RNode 1 sA None (Some true) None; RNode 2 sB None (Some true) None; RNode 3 sr None (Some false) None;
      RNode 9 [57%N] None None None]
     [REdge 1 3 (Some Reactant) None; REdge 3 2 (Some Product) None; REdge 1 2 (Some Product) (Some 5%Z);
      REdge 2 3 None (Some 7%Z); REdge 9 3 (Some Reactant) None].

Example raw_examples :
  normalise raw_full = BG [BNode 1 sA; BNode 2 sB] [BNode 3 sr] [BArc 1 3 1 Reactant; BArc 2 3 1 Product] /\
  normalise raw_bare = normalise raw_full /\ key_error raw_bare = false /\
  build_S_nodes (normalise raw_bare) = [[(-1)%Z]; [1%Z]] /\
  run_raw (RG [RNode 1 sA None None None] []) = L [I 2%Z] /\
  (* contradictory attributes: node 3 says kind = "reaction" but bipartite = 0 -> classified as a species, an edge reaching it as
     a reaction end raises KeyError *)
  run_raw (RG [RNode 1 sA (Some true) None None; RNode 3 sr (Some false) (Some true) None; RNode 4 sr (Some false) None None]
              [REdge 1 3 (Some Reactant) None]) = L [I 3%Z].
Proof. vm_compute. repeat split; reflexivity. Qed.

(** hypergraph_to_bipartite as a RAW graph: every node carries kind, bipartite and label, every arc role and stoich; reactant arcs
    run species -> reaction, product arcs reaction -> species; [strs] = str(node), irrelevant here since every label is present *)
Definition raw_species (ids : str -> N) (strs : N -> str) (s : str) : rnode :=
  RNode (ids s) (strs (ids s)) (Some true) (Some true) (Some s).
Definition raw_rxn (idr : str -> N) (strs : N -> str) (e : rxn) : rnode :=
  RNode (idr (rid e)) (strs (idr (rid e))) (Some false) (Some false) (Some (rrule e)).
Definition raw_arc (ids idr : str -> N) (a : arc) : redge :=
  match a_role a with
  | Reactant => REdge (ids (a_species a)) (idr (a_rxn a)) (Some Reactant) (Some (a_stoich a))
  | Product => REdge (idr (a_rxn a)) (ids (a_species a)) (Some Product) (Some (a_stoich a))
  end.
Definition raw_export (ids idr : str -> N) (strs : N -> str) (net : list rxn) (iso : list str) : rgraph :=
  RG (map (raw_species ids strs) (species_set net iso) ++ map (raw_rxn idr strs) (edges_sorted net))
     (map (raw_arc ids idr) (bip_arcs net)).

Lemma filter_map_all {A B} (p : B -> bool) (f : A -> B) l : (forall x, p (f x) = true) -> filter p (map f l) = map f l.
Proof. intros H. induction l as [|x l IH]; simpl; auto. now rewrite H, IH. Qed.

Lemma filter_map_none {A B} (p : B -> bool) (f : A -> B) l : (forall x, p (f x) = false) -> filter p (map f l) = [].
Proof. intros H. induction l as [|x l IH]; simpl; auto. now rewrite H. Qed.

Lemma find_app {A} (p : A -> bool) l1 l2 :
  find p (l1 ++ l2) = match find p l1 with Some x => Some x | None => find p l2 end.
Proof. induction l1 as [|y l1 IH]; simpl; auto. now destruct (p y). Qed.

Lemma find_map_some {A B} (p : B -> bool) (f : A -> B) l x : In x l -> p (f x) = true ->
  exists x', find p (map f l) = Some (f x') /\ p (f x') = true.
Proof.
  induction l as [|z l IH]; intros I Hp; [destruct I|]. simpl.
  destruct (p (f z)) eqn:E; eauto. destruct I as [->|I]; [congruence|auto].
Qed.

Lemma find_map_none {A B} (p : B -> bool) (f : A -> B) l : (forall x, In x l -> p (f x) = false) -> find p (map f l) = None.
Proof. induction l as [|z l IH]; intros H; simpl; auto. rewrite H, IH by auto using in_eq, in_cons. reflexivity. Qed.

Lemma flat_map_map_single {A B C} (f : B -> list C) (g : A -> B) (h : A -> C) l :
  (forall a, In a l -> f (g a) = [h a]) -> flat_map f (map g l) = map h l.
Proof. induction l as [|a l IH]; intros H; simpl; auto. rewrite H, IH by auto using in_eq, in_cons. reflexivity. Qed.

Lemma stored_cons flips e es : stored flips (e :: es) = flip_redge (hd false flips) e :: stored (tl flips) es.
Proof. now destruct flips. Qed.

Section RawExport.
  Variables (ids idr : str -> N) (strs : N -> str) (net : list rxn) (iso : list str).
  (** species identifiers and reaction identifiers are different objects (node ids of one graph) *)
  Hypothesis disjoint : forall s e, In s (species_set net iso) -> In e net -> ids s <> idr (rid e).

  Let G := raw_export ids idr strs net iso.

  (** looking the two ends of an arc of the export up by identifier finds a species node and a reaction node of the export
      carrying these identifiers (not necessarily THE species / reaction: identifiers need not be injective here) *)
  Lemma raw_arc_nodes a : In a (bip_arcs net) ->
    exists s' e', ids s' = ids (a_species a) /\ idr (rid e') = idr (a_rxn a) /\
      find_node G (ids (a_species a)) = Some (raw_species ids strs s') /\
      find_node G (idr (a_rxn a)) = Some (raw_rxn idr strs e').
  Proof.
    intros Ha. destruct (bip_arcs_in net a Ha) as (e & Ie & Hs & ->).
    assert (Is : In (a_species a) (species_set net iso)) by (apply species_set_in; eauto).
    assert (Ie' : In e (edges_sorted net)) by apply edges_sorted_in, Ie.
    unfold find_node, G, raw_export. cbn [rg_nodes]. rewrite !find_app.
    destruct (find_map_some (fun n => N.eqb (rn_id n) (ids (a_species a))) (raw_species ids strs) _ _ Is (N.eqb_refl _))
      as (s' & -> & Hs').
    destruct (find_map_some (fun n => N.eqb (rn_id n) (idr (rid e))) (raw_rxn idr strs) _ _ Ie' (N.eqb_refl _))
      as (e' & Fe & He').
    rewrite find_map_none, Fe.
    - exists s', e'. apply N.eqb_eq in Hs'. apply N.eqb_eq in He'. auto.
    - intros s Hin. apply N.eqb_neq. now apply disjoint.
  Qed.

  Lemma raw_arc_ends a : In a (bip_arcs net) ->
    arc_of G (raw_arc ids idr a) = [BArc (ids (a_species a)) (idr (a_rxn a)) (a_stoich a) (a_role a)] /\
    match ends G (raw_arc ids idr a) with Some (_, r) => negb (is_reaction r) | None => false end = false.
  Proof.
    intros Ha. destruct (raw_arc_nodes a Ha) as (s' & e' & Is & Ie & Fs & Fe).
    unfold raw_arc. destruct (a_role a); unfold arc_of, ends; cbn [re_u re_v re_role re_stoich];
      rewrite Fs, Fe; simpl; rewrite Is, Ie; split; reflexivity.
  Qed.

  (** the attribute layer applied to the fully annotated export is the node-level export of model/C17_NodeModel.v — so
      [nodes_refine] of proof/C17_Nodes.v (labels and matrices = the label-level model, for every injective identifier assignment) applies to what the
      code computes from it, and by [normalise_eqv] to every graph that is attribute-equivalent to it *)
  Theorem normalise_raw_export : normalise G = export ids idr net iso /\ key_error G = false.
  Proof.
    split.
    - unfold normalise, export, G, raw_export. cbn [rg_nodes rg_edges]. f_equal.
      + rewrite filter_app, filter_map_all, filter_map_none, app_nil_r by reflexivity. now rewrite map_map.
      + rewrite filter_app, filter_map_none, filter_map_all by reflexivity. simpl. now rewrite map_map.
      + apply flat_map_map_single. intros a Ha. apply raw_arc_ends, Ha.
    - unfold key_error. destruct (existsb _ _) eqn:E; [|reflexivity].
      apply existsb_exists in E. destruct E as (x & Ix & Px). apply in_map_iff in Ix. destruct Ix as (a & <- & Ia).
      now rewrite (proj2 (raw_arc_ends a Ia)) in Px.
  Qed.

  Lemma orient_flip b a : In a (bip_arcs net) -> orient_redge G (flip_redge b (raw_arc ids idr a)) = raw_arc ids idr a.
  Proof.
    intros Ha. destruct (raw_arc_nodes a Ha) as (s' & e' & _ & _ & Fs & Fe).
    unfold raw_arc. destruct (a_role a), b; unfold flip_redge, orient_redge; cbn [re_u re_v re_role];
      rewrite ?Fs, ?Fe; reflexivity.
  Qed.

  Lemma stored_orient l : incl l (bip_arcs net) ->
    forall flips, map (orient_redge G) (stored flips (map (raw_arc ids idr) l)) = map (raw_arc ids idr) l.
  Proof.
    induction l as [|a l IH]; intros Hl flips; [now destruct flips|]. apply incl_cons_inv in Hl. destruct Hl as [Ha Hl].
    cbn [map]. rewrite stored_cons. cbn [map]. now rewrite (orient_flip _ a Ha), IH.
  Qed.

  (** whichever way the undirected graph stores its edges, orienting them by role gives back the directed raw export — so undirected
      inputs are covered by [normalise_raw_export] and everything that follows from it *)
  Theorem orient_undirected_raw flips : orient_raw (undirected_raw flips G) = G.
  Proof.
    unfold orient_raw, undirected_raw. cbn [rg_nodes rg_edges].
    rewrite (map_ext _ (orient_redge G)) by reflexivity.
    unfold G at 2 3 4, raw_export. cbn [rg_edges rg_nodes]. now rewrite stored_orient by apply incl_refl.
  Qed.
End RawExport.

Lemma u_is_rxn_species n0 : species_like n0 = true -> rn_kind n0 = Some true -> u_is_rxn n0 = false.
Proof. intros _ Hk. unfold u_is_rxn. now rewrite Hk. Qed.
