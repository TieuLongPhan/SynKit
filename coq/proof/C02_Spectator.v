(** C02 — spectator edits: get_rc depends only on the atoms and on the sub-LIST of relevant bonds (changed, or between two
    hydrogens).  Two ITS graphs with the same atoms and the same relevant bonds (in the same order) have the SAME centre; so adding,
    deleting or re-attributing a bond that is unchanged and not H-H never changes the centre (the rewiring / count-changing edits of
    the history populations hist-b2 / hist-b3), while the contexts may change. *)
From Coq Require Import List NArith ZArith Bool.
From SK Require Import lib.LGraph lib.C01_GraphLemmas model.C01_Model model.C02_Model model.C02_Store proof.C02_Ball
                       proof.C02_Opts proof.C02_Proof.
Import ListNotations.
Local Open Scope Z_scope.

(** a fold skips the elements on which the step does nothing *)
Lemma fold_left_filter {S X} (f : S -> X -> S) (p : X -> bool) L : (forall st e, p e = false -> f st e = st) ->
  forall st, fold_left f L st = fold_left f (filter p L) st.
Proof.
  intros H. induction L as [|e L IH]; intros st; [reflexivity|]. cbn [fold_left filter].
  destruct (p e) eqn:P; [cbn [fold_left]; apply IH|]. rewrite (H st e P). apply IH.
Qed.

(** two steps that agree on the elements of the list give the same fold *)
Lemma fold_ext_in {S X} (f f' : S -> X -> S) L : (forall st e, In e L -> f' st e = f st e) -> forall st, fold_left f' L st = fold_left f L st.
Proof.
  induction L as [|e L IH]; intros H st; [reflexivity|]. cbn [fold_left]. rewrite (H st e (or_introl eq_refl)).
  apply IH. intros st' e' I. apply H. right. exact I.
Qed.


(** * for every option setting with disconnected = False and every label shape: generic in the node type *)
Section SpectatorG.
Variable A : Type.
Variables sel selhh : A -> A.
Variables ish cc : A -> bool.
Variable m : bool.

Definition relevant_g (g : lgraph A xedge) (e : N * N * xedge) : bool :=
  include_x m (snd e) || is_hh_g ish g (fst (fst e)) (snd (fst e)).

Lemma ensure_g_same (f : A -> A) (g g' : lgraph A xedge) : gnodes g' = gnodes g -> forall n ns, ensure_g f g' n ns = ensure_g f g n ns.
Proof. intros E n ns. unfold ensure_g, label. rewrite E. reflexivity. Qed.
Lemma is_hh_g_same (g g' : lgraph A xedge) : gnodes g' = gnodes g -> forall u v, is_hh_g ish g' u v = is_hh_g ish g u v.
Proof. intros E u v. unfold is_hh_g, is_h_g, label. rewrite E. reflexivity. Qed.

Lemma fold_changed_g_relevant (g : lgraph A xedge) L st :
  fold_left (step_changed_g sel m g) L st = fold_left (step_changed_g sel m g) (filter (relevant_g g) L) st.
Proof.
  apply fold_left_filter. intros st' [[u v] x] R. unfold relevant_g in R. cbn [fst snd] in R. apply orb_false_iff in R. unfold step_changed_g. rewrite (proj1 R). reflexivity.
Qed.
Lemma fold_hh_g_relevant (g : lgraph A xedge) L st :
  fold_left (step_hh_g selhh ish g) L st = fold_left (step_hh_g selhh ish g) (filter (relevant_g g) L) st.
Proof.
  apply fold_left_filter. intros st' [[u v] x] R. unfold relevant_g in R. cbn [fst snd] in R. apply orb_false_iff in R. unfold step_hh_g. rewrite (proj2 R). reflexivity.
Qed.

Theorem rcg_same_relevant (g g' : lgraph A xedge) : gnodes g' = gnodes g ->
  filter (relevant_g g) (gedges g') = filter (relevant_g g) (gedges g) ->
  get_rc_g sel selhh ish cc false m g' = get_rc_g sel selhh ish cc false m g.
Proof.
  intros En Ee.
  assert (forall st e, step_changed_g sel m g' st e = step_changed_g sel m g st e) as S1.
  { intros st [[u v] x]. unfold step_changed_g. rewrite !(ensure_g_same sel g g' En). reflexivity. }
  assert (forall st e, step_hh_g selhh ish g' st e = step_hh_g selhh ish g st e) as S2.
  { intros st [[u v] x]. unfold step_hh_g. rewrite (is_hh_g_same g g' En), !(ensure_g_same selhh g g' En). reflexivity. }
  assert (fold_left (step_hh_g selhh ish g') (gedges g') (fold_left (step_changed_g sel m g') (gedges g') ([], [])) =
          fold_left (step_hh_g selhh ish g) (gedges g) (fold_left (step_changed_g sel m g) (gedges g) ([], []))) as E.
  { rewrite (fold_ext_in _ _ _ (fun st e _ => S1 st e)), (fold_ext_in _ _ _ (fun st e _ => S2 st e)), (fold_changed_g_relevant g (gedges g')), (fold_hh_g_relevant g (gedges g')), Ee,
            <- (fold_changed_g_relevant g (gedges g)), <- (fold_hh_g_relevant g (gedges g)). reflexivity. }
  unfold get_rc_g. cbv zeta. rewrite E. reflexivity.
Qed.
End SpectatorG.

(** instance: every element_key / keep_mtg (disconnected = False) on graphs with optional labels *)
Corollary rcx_same_relevant K m (g g' : xits) : gnodes g' = gnodes g ->
  filter (fun e : N * N * xedge => include_x m (snd e) || is_hh_x g (fst (fst e)) (snd (fst e))) (gedges g') =
  filter (fun e : N * N * xedge => include_x m (snd e) || is_hh_x g (fst (fst e)) (snd (fst e))) (gedges g) ->
  get_rc_x K false m g' = get_rc_x K false m g.
Proof. intros En Ee. rewrite !get_rc_x_is_generic. apply (rcg_same_relevant xnode (sel_attr K) (sel_attr_hh K) ish_x charge_changed m g g' En). exact Ee. Qed.

(** * get_rc on full-label ITS graphs *)
Definition relevant (g : its) (e : N * N * iedge) : bool := changed (snd e) || is_hh g (fst (fst e)) (snd (fst e)).

Theorem rc_same_relevant (g g' : its) : gnodes g' = gnodes g ->
  filter (relevant g) (gedges g') = filter (relevant g) (gedges g) -> get_rc g' = get_rc g.
Proof.
  intros En Ee. apply (gmap_inj xn_of (fun e : iedge => (e, Some false))); [apply xn_of_inj|intros x y [= ->]; reflexivity|].
  rewrite <- !rcx_default_emb. apply rcx_same_relevant; [unfold emb, gmap; simpl; rewrite En; reflexivity|].
  unfold emb at 2 4, gmap. cbn [gedges]. rewrite !filter_map_swap.
  assert (forall e : N * N * iedge, relevant g e = let '(u, v, x) := e in include_x false (x, None) || is_hh_x (emb g) u v) as F
    by (intros [[u v] x]; unfold relevant; cbn [fst snd]; rewrite include_x_false, is_hh_emb; reflexivity).
  f_equal. transitivity (filter (relevant g) (gedges g')); [symmetry|rewrite Ee]; apply filter_ext; intros [[u v] x]; apply (F (u, v, x)).
Qed.

(** adding a spectator bond (unchanged, not between two hydrogens) anywhere in the edge list *)
Corollary rc_add_spectator_bond (g : its) l1 l2 u v x : gedges g = l1 ++ l2 -> changed x = false -> is_hh g u v = false ->
  get_rc (LG (gnodes g) (l1 ++ (u, v, x) :: l2)) = get_rc g.
Proof.
  intros E C Hh. assert (relevant g (u, v, x) = false) as R by (unfold relevant; cbn [fst snd]; rewrite C, Hh; reflexivity).
  apply rc_same_relevant; [reflexivity|]. cbn [gedges]. rewrite E, !filter_app. cbn [filter]. rewrite R. reflexivity.
Qed.

(** deleting is adding read from right to left *)
Corollary rc_del_spectator_bond (g : its) l1 l2 u v x : gedges g = l1 ++ (u, v, x) :: l2 -> changed x = false -> is_hh g u v = false ->
  get_rc (LG (gnodes g) (l1 ++ l2)) = get_rc g.
Proof.
  intros E C Hh. symmetry. destruct g as [ns es]. cbn [gnodes gedges] in *. subst es.
  exact (rc_add_spectator_bond (LG ns (l1 ++ l2)) l1 l2 u v x eq_refl C Hh).
Qed.

(** the contexts do change: witness on ex_its (the chain 1-5-6-7 hangs on the centre atom 1; deleting the spectator bond 5-6 keeps
    the centre and shrinks the radius-2 context) *)
Definition ex_cut : its := LG (gnodes ex_its) (filter (fun e : N * N * iedge => negb (N.eqb (fst (fst e)) 5 && N.eqb (snd (fst e)) 6)) (gedges ex_its)).
Example C02_spectator_nonvacuous :
  get_rc ex_cut = get_rc ex_its /\ gedges ex_cut <> gedges ex_its /\
  length (gnodes (extract_k ex_cut 2)) = 6%nat /\ length (gnodes (extract_k ex_its 2)) = 7%nat.
Proof.
  split; [|vm_compute; repeat split; try reflexivity; discriminate].
  apply (rc_del_spectator_bond ex_its [(1%N, 2%N, IE 2 0 2); (3%N, 4%N, IE 2 0 2); (3%N, 1%N, IE 0 2 (-2)); (4%N, 2%N, IE 0 2 (-2)); (1%N, 5%N, IE 2 2 0)]
           [(6%N, 7%N, IE 2 2 0); (4%N, 8%N, IE 2 2 0)] 5%N 6%N (IE 4 4 0)); reflexivity.
Qed.

(** spectator LABEL edits: with the same bonds, the same hydrogens and the same labels on the endpoints of the relevant bonds the
    centre is the same — whatever happens to the labels of the other atoms (charges, typesGH, elements other than to / from "H") *)
Lemma ensure_same_label (g g' : its) n ns : label g' n = label g n -> ensure_node g' n ns = ensure_node g n ns.
Proof. intros E. unfold ensure_node. rewrite E. reflexivity. Qed.

Theorem rc_same_centre_labels (g g' : its) : gedges g' = gedges g -> (forall n, is_h g' n = is_h g n) ->
  (forall a b x, In (a, b, x) (gedges g) -> relevant g (a, b, x) = true -> label g' a = label g a /\ label g' b = label g b) ->
  get_rc g' = get_rc g.
Proof.
  intros Ee Hh HL. unfold get_rc. cbv zeta. rewrite Ee.
  assert (forall u v, is_hh g' u v = is_hh g u v) as Hhh by (intros u v; unfold is_hh; rewrite !Hh; reflexivity).
  rewrite (fold_ext_in (step_changed g) (step_changed g') (gedges g)), (fold_ext_in (step_hh g) (step_hh g') (gedges g)); [reflexivity| |].
  - intros st [[u v] x] I. unfold step_hh. rewrite Hhh. destruct (is_hh g u v) eqn:C; [|reflexivity].
    destruct (HL u v x I) as [Lu Lv]; [unfold relevant; cbn [fst snd]; rewrite C; apply orb_true_r|].
    rewrite (ensure_same_label g g' u _ Lu), (ensure_same_label g g' v _ Lv). reflexivity.
  - intros st [[u v] x] I. unfold step_changed. destruct (changed x) eqn:C; [|reflexivity].
    destruct (HL u v x I) as [Lu Lv]; [unfold relevant; cbn [fst snd]; rewrite C; reflexivity|].
    rewrite (ensure_same_label g g' u _ Lu), (ensure_same_label g g' v _ Lv). reflexivity.
Qed.

(** witness on ex_its: the charge and the typesGH of the spectator atom 6 change, the centre does not *)
Definition relab6 (k : N) (a : inode) : inode :=
  if N.eqb k 6 then IN (i_el a) 1 (i_amap a) (i_extra a) (NA (i_el a) true 3 1 []) (i_H a) else a.
Definition ex_relab : its := LG (map (fun p : N * inode => (fst p, relab6 (fst p) (snd p))) (gnodes ex_its)) (gedges ex_its).
Example C02_spectator_labels_nonvacuous : get_rc ex_relab = get_rc ex_its /\ gnodes ex_relab <> gnodes ex_its.
Proof.
  split; [|vm_compute; discriminate]. apply rc_same_centre_labels; [reflexivity| |].
  - intros n. unfold is_h, label, ex_relab. cbn [gnodes]. rewrite (assoc_map_val relab6).
    destruct (assoc n (gnodes ex_its)); simpl; [unfold relab6; destruct (N.eqb n 6); reflexivity|reflexivity].
  - intros a b x I R. vm_compute in I. repeat (destruct I as [I|I]; [inversion I; subst; try (vm_compute in R; discriminate); split; reflexivity|]). destruct I.
Qed.

(** disconnected = True is different: a spectator bond between two centre atoms IS re-added by _reconnect_rc_edges (witness) *)
Definition sp_tri : xits := emb (LG [(1%N, ex_n 70%N); (2%N, ex_n 70%N); (3%N, ex_n 70%N)] [(1%N, 2%N, IE 2 0 2); (2%N, 3%N, IE 0 2 (-2)); (1%N, 3%N, IE 2 2 0)]).
Definition sp_tri_cut : xits := emb (LG [(1%N, ex_n 70%N); (2%N, ex_n 70%N); (3%N, ex_n 70%N)] [(1%N, 2%N, IE 2 0 2); (2%N, 3%N, IE 0 2 (-2))]).
Example C02_spectator_options_nonvacuous :
  get_rc_x K_default false true sp_tri_cut = get_rc_x K_default false true sp_tri /\
  length (gedges (get_rc_x K_default true false sp_tri)) = 3%nat /\ length (gedges (get_rc_x K_default true false sp_tri_cut)) = 2%nat.
Proof.
  split; [|vm_compute; split; reflexivity]. apply rcx_same_relevant; reflexivity.
Qed.
