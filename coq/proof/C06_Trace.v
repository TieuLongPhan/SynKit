(** C06 — the trace of VF2 calls: how much of an enumeration a loop consumes (closed form), the items
    that were not pulled do not influence the result, every call is on parts of the two graphs and
    pulls at most threshold + 1 items. *)
From Coq Require Import List NArith Bool Arith Lia.
From SK Require Import lib.LGraph lib.Mono lib.Reach model.C06_Model model.C06_Attrs model.C06_Trace proof.C06_All proof.C06_Attrs.
Import ListNotations.

(** closed form of the consumption of one iterator: it runs to the end of the enumeration or to the stop
    bound [lim], but every entered iteration counts *)
Lemma loop_n_closed cap thr it : forall n,
  loop_n cap thr it n = N.min (n + lenN it) (N.max (N.succ n) (lim cap thr)).
Proof.
  induction it as [|m it IH]; intros n.
  - cbn [loop_n]. change (lenN (@nil mapping)) with 0%N. lia.
  - cbn [loop_n]. rewrite lenN_cons.
    pose proof (stop_spec cap thr (N.succ n)) as Hs. unfold stop in Hs.
    destruct (capped cap (N.succ n)); [|destruct (thr <? N.succ n)%N]; cbn [orb] in Hs; symmetry in Hs.
    + apply N.leb_le in Hs. lia.
    + apply N.leb_le in Hs. lia.
    + apply N.leb_gt in Hs. rewrite IH. lia.
Qed.

Theorem pulled_closed cap thr it :
  loop_n cap thr it 0 = N.min (lenN it) (N.min (if (cap =? 0)%N then lenN it else cap) (thr + 1)).
Proof. rewrite loop_n_closed. unfold lim. destruct (N.eqb_spec cap 0); lia. Qed.

Lemma loop_n_ge cap thr it n : (n <= loop_n cap thr it n)%N.
Proof. rewrite loop_n_closed. lia. Qed.

Lemma loop_n_le cap thr it n : (loop_n cap thr it n <= n + lenN it)%N.
Proof. rewrite loop_n_closed. lia. Qed.

(** the exhaustive loop depends on its iterator only through the items it pulled *)
Lemma all_loop_pulled maxr thr it : forall acc n,
  all_loop maxr thr it acc n =
  all_loop maxr thr (firstn (N.to_nat (loop_n maxr thr it n - n)) it) acc n.
Proof.
  induction it as [|m it IH]; intros acc n.
  - rewrite firstn_nil. reflexivity.
  - cbn [loop_n all_loop].
    destruct (capped maxr (N.succ n)) eqn:Ec.
    + replace (N.to_nat (N.succ n - n)) with 1%nat by lia. cbn [firstn all_loop]. rewrite Ec. reflexivity.
    + destruct (thr <? N.succ n)%N eqn:Et.
      * replace (N.to_nat (N.succ n - n)) with 1%nat by lia. cbn [firstn all_loop]. rewrite Ec, Et. reflexivity.
      * pose proof (loop_n_ge maxr thr it (N.succ n)) as Hge.
        replace (N.to_nat (loop_n maxr thr it (N.succ n) - n))
          with (S (N.to_nat (loop_n maxr thr it (N.succ n) - N.succ n))) by lia.
        cbn [firstn all_loop]. rewrite Ec, Et. apply IH.
Qed.

Theorem find_all_pulled enum maxr thr (H P : graph) :
  find_all enum maxr thr H P =
  all_loop maxr thr (firstn (N.to_nat (loop_n maxr thr (enum (node_ids H) (node_ids P)) 0)) (enum (node_ids H) (node_ids P))) [] 0%N.
Proof.
  unfold find_all. rewrite (all_loop_pulled maxr thr _ [] 0%N). rewrite N.sub_0_r. reflexivity.
Qed.

(** ---------- every call of the trace ---------- *)
Section Calls.
Variable enum : list N -> list N -> list mapping.

Definition call_ok (H P : graph) (thr : N) (c : call) : Prop :=
  let '(hn, pn, k) := c in
  incl hn (node_ids H) /\ incl pn (node_ids P) /\ (k <= lenN (enum hn pn))%N /\ (k <= thr + 1)%N.

Lemma pulled_bound cap thr it n : (loop_n cap thr it n - n <= lenN it)%N /\ (loop_n cap thr it n - n <= thr + 1)%N.
Proof. rewrite loop_n_closed. pose proof (lim_le cap thr). lia. Qed.

(** a property that holds of the whole-graph call, and of every call on a pattern component and a large-enough
    host component wherever the counter stands, holds of every call of a trace *)
Section Forall.
Variables (H P : graph) (thr : N) (Q : call -> Prop).
Hypothesis Qall : forall cap, Q (node_ids H, node_ids P, loop_n cap thr (enum (node_ids H) (node_ids P)) 0).
Hypothesis Qcomp : forall cap hc pc n, In hc (comps H) -> In pc (comps P) -> length pc <= length hc ->
  Q (hc, pc, (loop_n cap thr (enum hc pc) n - n)%N).

Lemma cc_outer_calls_forall cap pc : In pc (comps P) -> forall cands n c,
  (forall ih, In ih cands -> In (snd ih) (comps H) /\ length pc <= length (snd ih)) ->
  In c (cc_outer_calls enum cap thr pc cands n) -> Q c.
Proof.
  intros Hpc. induction cands as [|[i hc] r IH]; intros n c Hc; cbn [cc_outer_calls]; [intros []|].
  intros [<-|Hin].
  - destruct (Hc (i, hc) (or_introl eq_refl)) as [A B]. apply Qcomp; assumption.
  - destruct (capped cap (loop_n cap thr (enum hc pc) n) || (thr <? loop_n cap thr (enum hc pc) n)%N); [destruct Hin|].
    apply (IH (loop_n cap thr (enum hc pc) n) c); [|exact Hin]. intros ih Hi. apply Hc. right. exact Hi.
Qed.

Lemma per_cc_calls_forall cap hcs : (forall ih, In ih hcs -> In (snd ih) (comps H)) ->
  forall pcs c, (forall pc, In pc pcs -> In pc (comps P)) ->
  In c (per_cc_calls enum cap thr hcs pcs) -> Q c.
Proof.
  intros Hh. induction pcs as [|pc r IH]; intros c Hp; cbn [per_cc_calls]; [intros []|].
  remember (filter (fun ih => length pc <=? length (snd ih)) hcs) as cand eqn:Ecand.
  destruct cand as [|x cand']; [intros []|].
  rewrite in_app_iff. intros [Hin|Hin].
  - apply (cc_outer_calls_forall cap pc (Hp pc (or_introl eq_refl)) (x :: cand') 0%N c); [|exact Hin].
    intros ih Hi. rewrite Ecand in Hi. apply filter_In in Hi. destruct Hi as [Hi Hl].
    split; [apply Hh; exact Hi|apply Nat.leb_le; exact Hl].
  - destruct (cc_outer enum cap thr pc (x :: cand') [] 0%N) as [[|y l]|]; try destruct Hin.
    apply IH; [|exact Hin]. intros pc' Hi. apply Hp. right. exact Hi.
Qed.

Lemma trace_all_forall maxr c : In c (trace_all enum maxr thr H P) -> Q c.
Proof. intros [<-|[]]. apply Qall. Qed.

Lemma trace_comp_forall maxr strict c : In c (trace_comp enum maxr thr strict H P) -> Q c.
Proof.
  unfold trace_comp.
  destruct (length (comps P) =? 0); [intros []|].
  destruct (length (comps H) <? length (comps P)); [apply trace_all_forall|].
  destruct ((length (comps P) <? length (comps H)) && strict); [intros []|].
  apply per_cc_calls_forall.
  - intros ih Hin. exact (index_from_snd _ _ _ Hin).
  - intros pc Hin. exact Hin.
Qed.

Theorem trace_forall cfg c : c_thr cfg = thr -> In c (trace enum cfg H P) -> Q c.
Proof.
  intros E. unfold trace. rewrite E. destruct (c_pref cfg && quick_pre_filter H P thr); [intros []|].
  (* the fallback strategy: the calls of the component-aware search, then the whole-graph call if that found nothing *)
  assert (Hbt : In c (trace_bt enum (c_maxr cfg) thr (c_strict cfg) H P) -> Q c).
  { unfold trace_bt. rewrite in_app_iff. intros [Hin|Hin]; [exact (trace_comp_forall _ _ _ Hin)|].
    destruct (find_comp enum (c_maxr cfg) thr (c_strict cfg) H P); [exact (trace_all_forall _ _ Hin)|destruct Hin]. }
  destruct (c_strat cfg) as [|[?|?|]]; [apply trace_all_forall|exact Hbt|exact Hbt|apply trace_comp_forall].
Qed.
End Forall.

(** every VF2 call of a search is on parts of the two graphs, and never pulls more than
    threshold + 1 monomorphisms (nor more than the enumeration has) *)
Theorem trace_ok cfg H P c : In c (trace enum cfg H P) -> call_ok H P (c_thr cfg) c.
Proof.
  apply (trace_forall H P (c_thr cfg) (call_ok H P (c_thr cfg))); [| |reflexivity].
  - intros cap. split; [apply incl_refl|split; [apply incl_refl|]].
    pose proof (pulled_bound cap (c_thr cfg) (enum (node_ids H) (node_ids P)) 0) as [A B].
    rewrite N.sub_0_r in A, B. split; assumption.
  - intros cap hc pc n Ih Ip _. split; [apply comps_incl; exact Ih|split; [apply comps_incl; exact Ip|apply pulled_bound]].
Qed.
End Calls.
