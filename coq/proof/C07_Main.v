(** C07 — isomorphisms and embeddings: the engine's comparators, the inverse of an injection on a finite domain, onto / sizes /
    turning an isomorphism round, and the verdicts that need nothing but the VF2 contract (is_isomorphic, graph_isomorphism, the
    boolean subgraph test).  The engine's own verdicts also rest on the WL-1 filter (C07_WL.v) and are in C07_Final.v.  Stdlib lists. *)
From Coq Require Import List NArith Bool Arith Lia Permutation.
From SK Require Import lib.LGraph model.C07_Model proof.C07_Spec proof.C07_History proof.C07_Filters.
Import ListNotations.

Definition flip2 {X} (r : X -> X -> bool) (a b : X) : bool := r b a.

(** what the WL lemma needs from a node comparator: it implies equality of the selected attributes *)
Definition respects (na : list N) (nm : attrs -> attrs -> bool) : Prop :=
  forall h p, nm h p = true -> forall k, In k na -> get k h = get k p.

Lemma bool_iff (a b : bool) : (a = true <-> b = true) -> a = b.
Proof. destruct a, b; intuition congruence. Qed.

(** a test [b] for [P] guarded by an optional filter that is necessary for [P] still decides [P] *)
Lemma filtered_iff (flag filt b : bool) (P : Prop) : (P -> filt = true) -> (b = true <-> P) ->
  ((if flag && negb filt then false else b) = true <-> P).
Proof.
  intros Hn Hb. destruct flag; [|exact Hb]. destruct filt; [exact Hb|]. split; [discriminate|]. intros p. discriminate (Hn p).
Qed.

Lemma forallb_get_spec (ks : list N) h p :
  forallb (fun k => opt_eqb (get k h) (get k p)) ks = true <-> (forall k, In k ks -> get k h = get k p).
Proof. rewrite forallb_forall. split; intros A k I; [apply opt_eqb_eq | apply opt_eqb_eq]; auto. Qed.

Lemma nm_eng_spec e h p : nm_eng e h p = true <-> (forall k, In k (e_na e) -> get k h = get k p) /\ (hc p <= hc h)%N.
Proof. unfold nm_eng. rewrite andb_true_iff, forallb_get_spec, N.leb_le. tauto. Qed.

Lemma em_eng_spec e h p : em_eng e h p = true <-> (forall k, In k (e_ea e) -> get k h = get k p).
Proof. apply forallb_get_spec. Qed.

Lemma nm_eng_flip e h p : nm_eng e h p = true -> (hc h <= hc p)%N -> nm_eng e p h = true.
Proof. rewrite !nm_eng_spec. intros (A & _) Hle. split; [intros k Ik; symmetry; auto | exact Hle]. Qed.

Lemma em_eng_flip e h p : em_eng e h p = true -> em_eng e p h = true.
Proof. rewrite !em_eng_spec. intros A k Ik. symmetry. auto. Qed.

Lemma nm_eng_respects e : respects (e_na e) (nm_eng e).
Proof. intros h p E. apply nm_eng_spec in E. tauto. Qed.

Lemma flip_respects na nm : respects na nm -> respects na (flip2 nm).
Proof. intros R h p E k I. symmetry. apply (R p h E k I). Qed.

Definition finv (f : N -> N) (dom : list N) (h : N) : N :=
  match find (fun u => N.eqb (f u) h) dom with Some u => u | None => 0%N end.

Lemma finv_r f dom h : (exists u, In u dom /\ f u = h) -> In (finv f dom h) dom /\ f (finv f dom h) = h.
Proof.
  intros (u & I & E). unfold finv. destruct (find (fun u => N.eqb (f u) h) dom) as [w|] eqn:F.
  - apply find_some in F. destruct F as (Iw & Ew). apply N.eqb_eq in Ew. auto.
  - exfalso. pose proof (find_none _ _ F u I) as Hn. simpl in Hn. rewrite E, N.eqb_refl in Hn. discriminate.
Qed.

Lemma finv_l f dom u : (forall a b, In a dom -> In b dom -> f a = f b -> a = b) -> In u dom -> finv f dom (f u) = u.
Proof.
  intros Inj I. destruct (finv_r f dom (f u)) as (Iw & Ew); [exists u; auto|]. apply Inj; auto.
Qed.

Lemma emb_nodes_perm ind nm em G1 G2 f : gwf G1 -> gwf G2 -> n_nodes G1 = n_nodes G2 -> emb ind nm em G1 G2 f ->
  Permutation (map f (node_ids G2)) (node_ids G1).
Proof.
  intros W1 W2 En He. apply NoDup_Permutation_bis.
  - eapply emb_image_nodup; eauto. apply gwf_nodup; auto.
  - rewrite map_length, <- !n_nodes_ids. lia.
  - eapply emb_image_incl; eauto.
Qed.

Lemma emb_onto nm em G1 G2 f : gwf G1 -> gwf G2 -> n_nodes G1 = n_nodes G2 -> emb true nm em G1 G2 f -> iso_map nm em G1 G2 f.
Proof.
  intros W1 W2 En He. split; auto. intros h Ih.
  apply (Permutation_in _ (Permutation_sym (emb_nodes_perm _ _ _ _ _ _ W1 W2 En He))), in_map_iff in Ih.
  destruct Ih as (u & E & Iu). exists u. auto.
Qed.

Lemma iso_sizes nm em G1 G2 f : gwf G1 -> gwf G2 -> iso_map nm em G1 G2 f -> n_nodes G1 = n_nodes G2.
Proof.
  intros W1 W2 (He & On). apply Nat.le_antisymm; [|eapply emb_n_nodes; eauto; apply gwf_nodup; auto].
  rewrite !n_nodes_ids, <- (map_length f (node_ids G2)). apply NoDup_incl_length; [apply gwf_nodup; auto|].
  intros h Ih. destruct (On h Ih) as (u & Iu & <-). apply in_map. exact Iu.
Qed.

Lemma iso_iff_contained nm em G1 G2 : gwf G1 -> gwf G2 ->
  ((exists f, iso_map nm em G1 G2 f) <-> n_nodes G1 = n_nodes G2 /\ contained true nm em G1 G2).
Proof.
  intros W1 W2. split.
  - intros (f & Hi). split; [eapply iso_sizes; eauto | exists f; apply Hi].
  - intros (En & f & He). exists f. apply emb_onto; auto.
Qed.

Lemma iso_inverse nm em G1 G2 f : iso_map nm em G1 G2 f ->
  iso_map (flip2 nm) (flip2 em) G2 G1 (finv f (node_ids G2)) /\
  (forall u, In u (node_ids G2) -> finv f (node_ids G2) (f u) = u) /\
  (forall h, In h (node_ids G1) -> f (finv f (node_ids G2) h) = h).
Proof.
  intros ((E1 & E2 & E3) & On). set (g := finv f (node_ids G2)).
  assert (G1r : forall h, In h (node_ids G1) -> In (g h) (node_ids G2) /\ f (g h) = h).
  { intros h Ih. apply finv_r. destruct (On h Ih) as (u & Iu & E). exists u. auto. }
  assert (Gl : forall u, In u (node_ids G2) -> g (f u) = u) by (intros u Iu; apply finv_l; auto).
  split; [|split; [exact Gl | intros h Ih; apply G1r; exact Ih]].
  split; [split; [|split]|].
  - intros h Ih. destruct (G1r h Ih) as (Ig & Eg). split; auto. unfold flip2.
    pose proof (proj2 (E1 (g h) Ig)) as Hn. rewrite Eg in Hn. exact Hn.
  - intros a b Ia Ib E. destruct (G1r a Ia) as (_ & Ea). destruct (G1r b Ib) as (_ & Eb). congruence.
  - intros a b Ia Ib Hne. destruct (G1r a Ia) as (Iga & Ea). destruct (G1r b Ib) as (Igb & Eb).
    assert (Hg : g a <> g b) by (intros E; apply Hne; congruence).
    specialize (E3 (g a) (g b) Iga Igb Hg). rewrite Ea, Eb in E3. unfold flip2.
    destruct (LGraph.adj G2 (g a) (g b)), (LGraph.adj G1 a b); auto; try discriminate; destruct E3.
  - intros u Iu. exists (f u). split; [apply E1; auto | apply Gl; auto].
Qed.

Lemma emb_weaken ind ind' nm em nm' em' H P f : (ind' = true -> ind = true) ->
  (forall u, In u (node_ids P) -> nm (nlabel H (f u)) (nlabel P u) = true -> nm' (nlabel H (f u)) (nlabel P u) = true) ->
  (forall b b', em b' b = true -> em' b' b = true) ->
  emb ind nm em H P f -> emb ind' nm' em' H P f.
Proof.
  intros Hi Hn Hm (E1 & E2 & E3). split; [|split; auto].
  - intros u Iu. destruct (E1 u Iu). split; auto.
  - intros u v Iu Iv Hne. specialize (E3 u v Iu Iv Hne). destruct (LGraph.adj P u v), (LGraph.adj H (f u) (f v)); auto.
    destruct ind'; auto. rewrite Hi in E3; auto.
Qed.

(** the inverse of an isomorphism is one for the same comparators as soon as they can be turned round on the matched pairs *)
Lemma iso_flip nm em nm' em' G1 G2 f : iso_map nm em G1 G2 f ->
  (forall u, In u (node_ids G2) -> nm (nlabel G1 (f u)) (nlabel G2 u) = true -> nm' (nlabel G2 u) (nlabel G1 (f u)) = true) ->
  (forall b b', em b' b = true -> em' b b' = true) ->
  iso_map nm' em' G2 G1 (finv f (node_ids G2)).
Proof.
  intros Hi Hn Hm. destruct (iso_inverse _ _ _ _ _ Hi) as ((He & On) & _ & Gr). split; [|exact On].
  pose proof (proj1 He) as Hdom. revert He. apply emb_weaken; [auto | | intros b b'; apply Hm].
  intros h Ih. destruct (Hdom h Ih) as (Ig & _). specialize (Hn _ Ig). rewrite (Gr h Ih) in Hn. exact Hn.
Qed.

(** comparators that are equalities: the isomorphism relation they induce is symmetric *)
Definition sym2 (m : attrs -> attrs -> bool) : Prop := forall h p, m h p = m p h.

Lemma nm_sub_sym names : sym2 (nm_sub names).
Proof.
  intros h p. unfold nm_sub. induction names as [|kd r IH]; simpl; [reflexivity|]. rewrite IH, N.eqb_sym. reflexivity.
Qed.

Lemma eqd_sym k d : sym2 (fun h p => N.eqb (getd k d h) (getd k d p)).
Proof. intros h p. apply N.eqb_sym. Qed.

Lemma any_attrs_sym : sym2 any_attrs.
Proof. intros h p. reflexivity. Qed.

Lemma iso_exists_sym nm em g1 g2 : sym2 nm -> sym2 em ->
  (exists f, iso_map nm em g1 g2 f) -> exists f, iso_map nm em g2 g1 f.
Proof.
  intros Sn Se (f & Hi). eexists. apply (iso_flip _ _ _ _ _ _ _ Hi); [intros u _; rewrite Sn | intros b b'; rewrite Se]; auto.
Qed.

Lemma firstn_in {X} n : forall (l : list X) x, In x (firstn n l) -> In x l.
Proof. induction n as [|n IH]; intros [|y l] x; simpl; auto; try tauto. intros [E|I]; auto. Qed.

Definition set_wl (e : engine) (b : bool) : engine := Eng (e_na e) (e_ea e) b (e_mm e).
Definition hc_all (c : N) (g : graph) : Prop := forall u, In u (node_ids g) -> hc (nlabel g u) = c.

Section Engine.
Variable vf2b : bool -> (attrs -> attrs -> bool) -> (attrs -> attrs -> bool) -> graph -> graph -> bool.
Variable enum : (attrs -> attrs -> bool) -> (attrs -> attrs -> bool) -> graph -> graph -> list mapping.
Hypothesis VB : vf2b_contract vf2b.
Hypothesis EN : enum_contract enum.

Lemma is_isomorphic_spec nm em G1 G2 : gwf G1 -> gwf G2 ->
  (is_isomorphic vf2b nm em G1 G2 = true <-> exists f, iso_map nm em G1 G2 f).
Proof.
  intros W1 W2. unfold is_isomorphic. rewrite andb_true_iff, Nat.eqb_eq, (VB true nm em G1 G2 W1 W2), iso_iff_contained; tauto.
Qed.

(** graph_morphism.graph_isomorphism(use_defaults=True) *)
Theorem giso_spec dstar dzero done g1 g2 : gwf g1 -> gwf g2 ->
  (giso vf2b dstar dzero done g1 g2 = true <->
   exists f, iso_map (nm_sub [(1%N, dstar); (2%N, dzero)]) (fun h p => N.eqb (getd 4 done h) (getd 4 done p)) g1 g2 f).
Proof. intros W1 W2. apply is_isomorphic_spec; auto. Qed.

(** (3) boolean subgraph test = definition of induced / monomorphic containment, with or without the filter *)
Theorem sub_iso_spec uf ind nc ec names eattr child parent : gwf child -> gwf parent ->
  (sub_iso vf2b uf ind nc ec names eattr child parent = true <-> contained ind (nm_subc nc names) (em_subc ec eattr) parent child).
Proof.
  intros WC WP. apply filtered_iff; [apply sub_filter_necessary; auto | apply VB; auto].
Qed.

Theorem sub_iso_filter_transparent ind nc ec names eattr child parent : gwf child -> gwf parent ->
  sub_iso vf2b true ind nc ec names eattr child parent = sub_iso vf2b false ind nc ec names eattr child parent.
Proof. intros WC WP. apply bool_iff. rewrite !sub_iso_spec; auto. tauto. Qed.

(** (4) embeddings: whatever get_mappings returns is taken from VF2's enumeration *)
Lemma get_mappings_incl e H P : incl (get_mappings_p vf2b enum e H P) (enum (nm_eng e) (em_eng e) H P).
Proof.
  unfold get_mappings_p. destruct (negb (pre_check_p e H P)); [intros m []|].
  destruct ((n_nodes P =? n_nodes H) && (n_edges P =? n_edges H)).
  - destruct (is_isomorphic vf2b (nm_eng e) (em_eng e) H P); [|intros m []].
    destruct (enum (nm_eng e) (em_eng e) H P) as [|m0 r]; intros m []; [left; auto | contradiction].
  - unfold take. destruct (e_mm e); [intros m; apply firstn_in | apply incl_refl].
Qed.

Theorem get_mappings_valid e H P m : gwf H -> gwf P ->
  In m (get_mappings_p vf2b enum e H P) -> mapping_valid true (nm_eng e) (em_eng e) H P m.
Proof. intros WH WP I. apply (EN (nm_eng e) (em_eng e) H P WH WP), get_mappings_incl, I. Qed.
End Engine.
