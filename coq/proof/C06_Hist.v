(** C06 — histories (model/C06_Hist.v): a search reads the two objects only through their projections
    onto the selections, so an in-place edit of an attribute that is not selected (and is not hcount)
    changes no answer of the next search; an edit of a selected attribute, or of the bonds, is seen.
    Over whole scripts: runs from states related by a relation that the edits preserve and that fixes the
    projections answer alike ([related_runs]; instances in C06_HistFrame.v, C06_HistFrameE.v). *)
From Coq Require Import List NArith Bool Arith Lia.
From SK Require Import lib.Tok lib.LGraph model.C06_Model model.C06_Attrs model.C06_Trace model.C06_Hist proof.C06_Attrs.
Import ListNotations.

(** two enumeration oracles that agree on parts of the two graphs give the same trace *)
Section TraceExt.
Variables (e1 e2 : list N -> list N -> list mapping) (G Q : graph).
Hypothesis Hm : forall hn pn, incl hn (node_ids G) -> incl pn (node_ids Q) -> e1 hn pn = e2 hn pn.

Lemma cc_outer_calls_ext cap thr pc : incl pc (node_ids Q) -> forall cands n,
  (forall ih, In ih cands -> incl (snd ih) (node_ids G)) ->
  cc_outer_calls e1 cap thr pc cands n = cc_outer_calls e2 cap thr pc cands n.
Proof.
  intros Hpc. induction cands as [|[i hc] l IHl]; intros n Hc; cbn [cc_outer_calls]; [reflexivity|].
  rewrite (Hm hc pc) by (try exact Hpc; apply (Hc (i, hc)); left; reflexivity).
  rewrite IHl by (intros ih Hi; apply Hc; right; exact Hi). reflexivity.
Qed.

Lemma per_cc_calls_ext cap thr hcs : (forall ih, In ih hcs -> incl (snd ih) (node_ids G)) ->
  forall pcs, (forall pc, In pc pcs -> incl pc (node_ids Q)) ->
  per_cc_calls e1 cap thr hcs pcs = per_cc_calls e2 cap thr hcs pcs.
Proof.
  intros Hh. induction pcs as [|pc r IH]; intros Hp; cbn [per_cc_calls]; [reflexivity|].
  assert (Hpc : incl pc (node_ids Q)) by (apply Hp; left; reflexivity).
  assert (Hc : forall ih, In ih (filter (fun ih => length pc <=? length (snd ih)) hcs) -> incl (snd ih) (node_ids G)).
  { intros ih Hi. apply filter_In in Hi. apply Hh. exact (proj1 Hi). }
  destruct (filter (fun ih => length pc <=? length (snd ih)) hcs) as [|x cand] eqn:Ec; [reflexivity|].
  rewrite (cc_outer_enum_ext e1 e2 G Q Hm cap thr pc Hpc (x :: cand) [] 0%N Hc).
  rewrite IH by (intros pc' Hi; apply Hp; right; exact Hi).
  rewrite (cc_outer_calls_ext cap thr pc Hpc (x :: cand) 0%N Hc). reflexivity.
Qed.

Lemma trace_enum_ext c : trace e1 c G Q = trace e2 c G Q.
Proof.
  unfold trace, trace_bt, trace_comp, trace_all.
  rewrite (find_comp_enum_ext e1 e2 G Q Hm).
  rewrite (Hm (node_ids G) (node_ids Q) (incl_refl _) (incl_refl _)).
  rewrite per_cc_calls_ext.
  - reflexivity.
  - intros ih Hin. apply comps_incl. exact (index_from_snd _ _ _ Hin).
  - intros pc Hin. apply comps_incl. exact Hin.
Qed.
End TraceExt.

Definition run_tr_proj (G Q : graph) (cfgs : list cfg) : tok :=
  L [ tbool (wfb G && wfb Q); tcomps (comps G); tcomps (comps Q);
      tlist (fun c => L [ tbool (quick_pre_filter G Q (c_thr c));
                          tset tmapping (find (monos_on G Q) c G Q);
                          tlist tcallt (trace (monos_on G Q) c G Q) ]) cfgs ].

Lemma run_tr_set_project na ea (H P : rgraph) cfgs :
  run_tr_set na ea H P cfgs = run_tr_proj (project na ea H) (project na ea P) cfgs.
Proof.
  unfold run_tr_set, run_tr_proj, tlist. apply (f_equal (fun x => L [_; _; _; L x])). apply map_ext. intros c.
  rewrite find_sel_project, (quick_pre_filter_sel_project na ea).
  rewrite (trace_enum_ext (monos_sel na ea H P) (monos_on (project na ea H) (project na ea P))); [reflexivity|].
  intros hn pn Hh Hp. symmetry. apply monos_sel_project; rewrite <- (node_ids_project na ea); assumption.
Qed.

(** everything a search step answers is a function of the two projections *)
Theorem run_tr_set_reads_projection na ea (H H' P P' : rgraph) cfgs :
  project na ea H = project na ea H' -> project na ea P = project na ea P' ->
  run_tr_set na ea H' P' cfgs = run_tr_set na ea H P cfgs.
Proof. intros EH EP. rewrite !run_tr_set_project, EH, EP. reflexivity. Qed.

(** two runs of one script from related states: when every edit the script may make preserves the relation and
    related states have the same projection for every search the script may make, the answers are the same *)
Section Noninterference.
Variable R : rgraph -> rgraph -> Prop.
Variable allowed : hstep -> Prop.
Hypothesis R_edit : forall side e g1 g2, allowed (HEdit side e) -> R g1 g2 -> R (apply_edit e g1) (apply_edit e g2).
Hypothesis R_search : forall swap na ea c g1 g2, allowed (HSearch swap na ea c) -> R g1 g2 ->
  project na ea g1 = project na ea g2.

Theorem related_runs : forall steps (H1 H2 P1 P2 : rgraph),
  R H1 H2 -> R P1 P2 -> Forall allowed steps -> run_hist H1 P1 steps = run_hist H2 P2 steps.
Proof.
  induction steps as [|s r IH]; intros H1 H2 P1 P2 AH AP Hs; [reflexivity|].
  inversion Hs as [|? ? Hs0 Hr]; subst.
  destruct s as [[|] e|swap na ea c|]; cbn [run_hist].
  - apply IH; [apply (R_edit true); assumption|exact AP|exact Hr].
  - apply IH; [exact AH|apply (R_edit false); assumption|exact Hr].
  - rewrite (IH H1 H2 P1 P2 AH AP Hr). apply (f_equal (fun x => x :: _)).
    destruct swap; apply run_tr_set_reads_projection; symmetry; apply (R_search _ _ _ _ _ _ Hs0); assumption.
  - apply IH; assumption.
Qed.

(** an edit after which the state is still related to the one before is never seen *)
Corollary edit_never_seen e host_side (H P : rgraph) steps :
  R H H -> R P P -> R (apply_edit e H) H -> R (apply_edit e P) P -> Forall allowed steps ->
  run_hist H P (HEdit host_side e :: steps) = run_hist H P steps.
Proof. intros RH RP ReH ReP Hs. destruct host_side; cbn [run_hist]; apply related_runs; assumption. Qed.
End Noninterference.

(** ---------- dictionaries ---------- *)
Lemma aget_dict_set_other k v d k' : k' <> k -> aget k' (dict_set k v d) = aget k' d.
Proof.
  intros Hne. unfold aget. induction d as [|[k0 v0] r IH]; simpl.
  - destruct (N.eqb_spec k' k); [contradiction|reflexivity].
  - destruct (N.eqb_spec k0 k) as [->|Hk0]; simpl.
    + destruct (N.eqb_spec k' k); [contradiction|reflexivity].
    + destruct (N.eqb_spec k' k0); [reflexivity|exact IH].
Qed.

Lemma aget_dict_set_same k v d : aget k (dict_set k v d) = v.
Proof.
  unfold aget. induction d as [|[k0 v0] r IH]; simpl.
  - rewrite N.eqb_refl. reflexivity.
  - destruct (N.eqb_spec k0 k) as [->|Hk0]; simpl.
    + rewrite N.eqb_refl. reflexivity.
    + destruct (N.eqb_spec k k0) as [E|_]; [symmetry in E; contradiction|exact IH].
Qed.

Lemma aget_dict_del_other k d k' : k' <> k -> aget k' (dict_del k d) = aget k' d.
Proof.
  intros Hne. unfold aget. induction d as [|[k0 v0] r IH]; simpl; [reflexivity|].
  destruct (N.eqb_spec k0 k) as [->|Hk0]; simpl.
  - destruct (N.eqb_spec k' k); [contradiction|reflexivity].
  - destruct (N.eqb_spec k' k0); [reflexivity|exact IH].
Qed.

(** ---------- the three attribute edits, not selected ---------- *)
Lemma project_map_node na ea g u f :
  (forall l, proj_n na (f l) = proj_n na l) -> project na ea (map_node u f g) = project na ea g.
Proof.
  intros Hf. unfold project, map_node. simpl. f_equal. rewrite map_map. apply map_ext. intros [x l]. simpl.
  destruct (N.eqb x u); simpl; [rewrite Hf|]; reflexivity.
Qed.

Lemma project_map_edge na ea g a b f :
  (forall d, proj_e ea (f d) = proj_e ea d) -> project na ea (map_edge a b f g) = project na ea g.
Proof.
  intros Hf. unfold project, map_edge. simpl. f_equal. rewrite map_map. apply map_ext. intros [[x y] d].
  destruct (joins a b x y); [rewrite Hf|]; reflexivity.
Qed.

Definition invisible (na ea : list N) (e : edit) : Prop :=
  match e with
  | ESetNodeAttr _ k _ _ | EDelNodeAttr _ k => ~ In k na /\ k <> HCOUNT_KEY
  | ESetEdgeAttr _ _ k _ => ~ In k ea
  | _ => False
  end.

Lemma project_invisible na ea e g : invisible na ea e -> project na ea (apply_edit e g) = project na ea g.
Proof.
  destruct e as [u k v n|u k|a b k v|a b d|a b|u l|u]; simpl; try (intros Hf; exact (False_rect _ Hf)).
  - intros [Hn Hk]. apply project_map_node. intros [d h]. unfold proj_n, lab_set, hc. simpl.
    destruct (N.eqb_spec k HCOUNT_KEY); [contradiction|]. f_equal.
    apply map_ext_in. intros k' Hin. apply aget_dict_set_other. intros ->. exact (Hn Hin).
  - intros [Hn Hk]. apply project_map_node. intros [d h]. unfold proj_n, lab_del, hc. simpl.
    destruct (N.eqb_spec k HCOUNT_KEY); [contradiction|]. f_equal.
    apply map_ext_in. intros k' Hin. apply aget_dict_del_other. intros ->. exact (Hn Hin).
  - intros Hn. apply project_map_edge. intros d. unfold proj_e.
    apply map_ext_in. intros k' Hin. apply aget_dict_set_other. intros ->. exact (Hn Hin).
Qed.

(** a search right after an in-place edit of a non-selected attribute (of either object) answers as if
    the edit had not happened: result, pre-filter verdict, components, VF2 calls *)
Theorem hist_edit_invisible na ea e host_side swap c (H P : rgraph) rest :
  invisible na ea e ->
  hd_error (run_hist H P (HEdit host_side e :: HSearch swap na ea c :: rest)) =
  hd_error (run_hist H P (HSearch swap na ea c :: rest)).
Proof.
  intros Hi. pose proof (fun g => project_invisible na ea e g Hi) as E.
  destruct host_side, swap; cbn [run_hist hd_error]; apply f_equal;
    apply run_tr_set_reads_projection; first [symmetry; apply E|reflexivity].
Qed.

(** results are values: a caller-side mutation of an earlier result changes nothing *)
Theorem hist_mutate_result_noop (H P : rgraph) rest : run_hist H P (HMutateResult :: rest) = run_hist H P rest.
Proof. reflexivity. Qed.

(** searches do not change the state: a repeated request gives the same answer *)
Theorem hist_search_pure swap na ea c (H P : rgraph) rest :
  run_hist H P (HSearch swap na ea c :: HSearch swap na ea c :: rest) =
  (if swap then run_tr_set na ea P H [c] else run_tr_set na ea H P [c]) :: run_hist H P (HSearch swap na ea c :: rest).
Proof. reflexivity. Qed.

(** ---------- non-vacuity: what IS seen ---------- *)
Local Open Scope N_scope.

(** names: 1 hcount, 2 element, 3 order; values: 1 "C", 2 = 1 (order).  Host: chain 0-1-2 and a lone carbon 3; pattern: 10-11
    and a lone carbon 12 (the witness of the seeded change C06-w3-1).  The bond 1-2 is moved to 2-3 in place: node and edge
    counts unchanged, components {0,1,2},{3} -> {0,1},{2,3}.  Component-aware answers: 4 -> 4 but different maps. *)
Definition Hh : rgraph :=
  LG [ (0, ([(2, 1)], None)); (1, ([(2, 1)], None)); (2, ([(2, 1)], None)); (3, ([(2, 1)], None)) ]
     [ (0, 1, [(3, 2)]); (1, 2, [(3, 2)]) ].
Definition Ph : rgraph :=
  LG [ (10, ([(2, 1)], None)); (11, ([(2, 1)], None)); (12, ([(2, 1)], None)) ] [ (10, 11, [(3, 2)]) ].
Definition comp_cfg := Cfg 1 0 5000 false false.
Definition moved := apply_edit (EAddEdge 2 3 [(3, 2)]) (apply_edit (ERemoveEdge 1 2) Hh).

Example ex_hist_bond_moved :
  run_hist Hh Ph [HSearch false [2] [3] comp_cfg; HEdit true (ERemoveEdge 1 2); HEdit true (EAddEdge 2 3 [(3, 2)]);
                  HSearch false [2] [3] comp_cfg] =
  [run_tr_set [2] [3] Hh Ph [comp_cfg]; run_tr_set [2] [3] moved Ph [comp_cfg]] /\
  length (gnodes moved) = length (gnodes Hh) /\ length (gedges moved) = length (gedges Hh) /\
  comps (project [2] [3] Hh) = [[0; 1; 2]; [3]] /\ comps (project [2] [3] moved) = [[0; 1]; [2; 3]] /\
  find_sel (monos_sel [2] [3] Hh Ph) comp_cfg [2] [3] Hh Ph <> find_sel (monos_sel [2] [3] moved Ph) comp_cfg [2] [3] moved Ph.
Proof. vm_compute. repeat split; try reflexivity. discriminate. Qed.

Example ex_invisible : invisible [2] [3] (ESetNodeAttr 1 7 9 0) /\ ~ invisible [2] [3] (ESetNodeAttr 1 2 9 0).
Proof.
  split.
  - split; [simpl; intros [E|[]]; discriminate|discriminate].
  - intros [Hn _]. apply Hn. left. reflexivity.
Qed.

(** a selected attribute edited in place IS seen: element of host node 3 set to another value: the lone carbon is gone *)
Example ex_hist_edit_seen :
  hd_error (run_hist Hh Ph [HEdit true (ESetNodeAttr 3 2 9 0); HSearch false [2] [3] comp_cfg]) <>
  hd_error (run_hist Hh Ph [HSearch false [2] [3] comp_cfg]).
Proof. vm_compute. discriminate. Qed.
