(** C11 (round 3) — what a reused object answers.  Stdlib lists. *)
From Coq Require Import List NArith.
From SK Require Import lib.LGraph model.C11_Model model.C11_State.
Import ListNotations.

Lemma read_fresh fn fe g : fst (a_read fn fe (a_new g)) = analyze fn fe g.
Proof. reflexivity. Qed.

Lemma read_twice fn fe o : let '(a, o') := a_read fn fe o in a_read fn fe o' = (a, o').
Proof. unfold a_read. destruct o as [g [a|]]; reflexivity. Qed.

(** once read, the object keeps its answer whatever happens to the graph afterwards *)
Lemma read_after_edit fn fe o g' : let '(a, o') := a_read fn fe o in fst (a_read fn fe (a_edit g' o')) = a.
Proof. unfold a_read, a_edit. destruct o as [g [a|]]; reflexivity. Qed.

(** an object that has not been read yet answers for the value the graph has at the first read *)
Lemma unread_after_edit fn fe g g' : fst (a_read fn fe (a_edit g' (a_new g))) = analyze fn fe g'.
Proof. reflexivity. Qed.

Lemma reads_cached fn fe a : forall gs o, o_cache o = Some a -> reads fn fe o gs = map (fun _ => a) gs.
Proof.
  induction gs as [|g r IH]; intros o H; simpl; [reflexivity|].
  unfold a_read, a_edit. simpl. rewrite H. f_equal. apply IH. reflexivity.
Qed.

(** a history of in-place edits, read after each: every answer is the analysis of the FIRST value read *)
Lemma reads_stale fn fe g0 gs : reads fn fe (a_new g0) gs = map (fun _ => analyze fn fe (hd g0 gs)) gs.
Proof.
  destruct gs as [|g r]; [reflexivity|]. simpl. f_equal. apply reads_cached. reflexivity.
Qed.

(** fitting again always answers for the current value *)
Lemma refits_fresh fn fe k : forall gs o, refits fn fe k o gs = map (fun g => Some (wl fn fe g k)) gs.
Proof. induction gs as [|g r IH]; intros o; simpl; [reflexivity|]. f_equal. apply IH. Qed.

Lemma unfitted_raises g : e_colors (e_new g) = None.
Proof. reflexivity. Qed.

Lemma objects_all (fn : nlab -> N) (fe : elab -> N) (k : nat) (g0 : graph) (gs : list graph) :
  reads fn fe (a_new g0) gs = map (fun _ => analyze fn fe (hd g0 gs)) gs /\
  (forall g g', fst (a_read fn fe (a_edit g' (a_new g))) = analyze fn fe g') /\
  (forall o, let '(a, o') := a_read fn fe o in a_read fn fe o' = (a, o')) /\
  refits fn fe k (e_new g0) gs = map (fun g => Some (wl fn fe g k)) gs /\
  e_colors (e_new g0) = None.
Proof.
  split; [apply reads_stale|]. split; [intros; apply unread_after_edit|]. split; [apply read_twice|].
  split; [apply refits_fresh | reflexivity].
Qed.

Example ex_objects :
  let g1 := LG [(1, (0, 0, 0)); (2, (0, 0, 0)); (3, (0, 0, 0))]%N [(1, 2, (0, 0)); (2, 3, (0, 0))]%N in
  let g2 := LG [(1, (1, 1, 1)); (2, (0, 0, 0)); (3, (0, 0, 0))]%N [(1, 2, (0, 0)); (2, 3, (0, 0))]%N in
  map a_count (reads n_exact e_order (a_new g1) [g1; g2]) = [2; 2]%N /\
  a_count (analyze n_exact e_order g2) = 1%N /\
  map (option_map (map snd)) (refits n_exact e_order 10 (e_new g1) [g1; g2]) = [Some [0; 1; 0]; Some [0; 1; 2]]%N.
Proof. vm_compute. repeat split. Qed.
