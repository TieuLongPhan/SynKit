(** C20 — completeness of [is_realizable] within the search bounds, stated on the PATHWAY itself
    (edge list, flow, orderings, (fired counts, species marking) states) — no extended net in the premises.

    Three ingredients on top of proof/C20_Build.v:
      1. converse simulation: an ordering of the pathway that fires each edge flow times IS a firing sequence of the
         extended net from M0 to MT ([realizes_path]);
      2. depth: every firing sequence from M0 consumes one supply token per step, so it is no longer than the sum of
         the positive flows ([path_length_bound]);
      3. states: a marking of the extended net reachable from M0 is determined by (how often each edge has fired,
         species marking) ([reachable_tuple_decoded]). *)
From Coq Require Import ZArith NArith List Lia.
Import ListNotations.
From SK Require Import model.C20_Model proof.C20_Spec proof.C20_Petri proof.C20_Bfs proof.C20_Build.
Local Open Scope Z_scope.

(** sums over an index range *)
Fixpoint sumf (f : nat -> Z) (n : nat) : Z :=
  match n with O => 0 | S k => sumf f k + f k end.

Lemma sumf_le f g n : (forall k, (k < n)%nat -> f k <= g k) -> sumf f n <= sumf g n.
Proof.
  induction n as [|n IH]; intros H; simpl; [lia|].
  assert (sumf f n <= sumf g n) by (apply IH; intros; apply H; lia).
  specialize (H n (Nat.lt_succ_diag_r n)). lia.
Qed.

Lemma sumf_ext f g n : (forall k, (k < n)%nat -> f k = g k) -> sumf f n = sumf g n.
Proof.
  induction n as [|n IH]; intros H; simpl; auto.
  rewrite IH by (intros; apply H; lia). rewrite (H n) by lia. reflexivity.
Qed.

Lemma sumf_plus f g n : sumf (fun k => f k + g k) n = sumf f n + sumf g n.
Proof. induction n as [|n IH]; simpl; lia. Qed.

Lemma sumf_indicator j n :
  sumf (fun k => if N.eqb j (N.of_nat k) then 1 else 0) n = if (N.to_nat j <? n)%nat then 1 else 0.
Proof.
  induction n as [|n IH]; simpl; auto. rewrite IH.
  destruct (N.eqb_spec j (N.of_nat n)), (Nat.ltb_spec (N.to_nat j) n), (Nat.ltb_spec (N.to_nat j) (S n)); lia.
Qed.

(** the length of a sequence over 0..n-1 is the sum of the occurrence counts *)
Lemma length_sum_counts n : forall sq : list N, (forall j, In j sq -> (N.to_nat j < n)%nat) ->
  Z.of_nat (length sq) = sumf (fun k => count (N.of_nat k) sq) n.
Proof.
  induction sq as [|j sq IH]; intros H.
  - clear H. simpl. induction n as [|n IHn]; simpl; auto. rewrite <- IHn. unfold count. simpl. lia.
  - rewrite (sumf_ext _ (fun k => (if N.eqb j (N.of_nat k) then 1 else 0) + count (N.of_nat k) sq))
      by (intros; apply count_cons).
    rewrite sumf_plus, sumf_indicator, <- IH by (intros; apply H; simpl; auto).
    replace (N.to_nat j <? n)%nat with true by (symmetry; apply Nat.ltb_lt, H; simpl; auto).
    simpl length. lia.
Qed.

Lemma count_notin j sq : ~ In j sq -> count j sq = 0.
Proof. intros H. unfold count. rewrite (proj1 (count_occ_not_In N.eq_dec sq j) H). reflexivity. Qed.

Lemma count_nonneg j sq : 0 <= count j sq.
Proof. unfold count. lia. Qed.

Lemma count_in_pos j sq : In j sq -> 1 <= count j sq.
Proof. intros H. unfold count. apply (count_occ_In N.eq_dec) in H. lia. Qed.

Lemma ordering_in_range edges sq : forall m m', ordering edges m sq m' ->
  forall j, In j sq -> (N.to_nat j < length edges)%nat.
Proof.
  induction sq as [|j sq IH]; intros m m' H j0 Hin; [destruct Hin|].
  apply ordering_cons_inv in H as (e & Hnth & _ & H). destruct Hin as [<-|Hin].
  - apply nth_error_Some. congruence.
  - exact (IH _ _ H j0 Hin).
Qed.

(** the sum of the positive flows: an upper bound on the length of every firing sequence *)
Definition total_flow (edges : list edge) (flow : list Z) : Z :=
  sumf (fun k => Z.max 0 (nth k flow 0)) (length edges).

(** the extended marking that stands for "edge k has fired [nth k fired 0] times, species marking [m]" *)
Definition decode (flow : list Z) (fired : list Z) (m : smarking) (p : N) : Z :=
  let q := N.div p 3 in
  match N.modulo p 3 with
  | 0%N => m q
  | 1%N => nth (N.to_nat q) flow 0 - nth (N.to_nat q) fired 0
  | _ => nth (N.to_nat q) fired 0
  end.

Lemma decode_at flow fired m q r : (r < 3)%N ->
  decode flow fired m (3 * q + r) =
  match r with
  | 0%N => m q
  | 1%N => nth (N.to_nat q) flow 0 - nth (N.to_nat q) fired 0
  | _ => nth (N.to_nat q) fired 0
  end.
Proof.
  intros Hr. unfold decode.
  now rewrite <- (N.mod_unique (3 * q + r) 3 q r), <- (N.div_unique (3 * q + r) 3 q r).
Qed.

Lemma decode_sp flow fired m s : decode flow fired m (sp_place s) = m s.
Proof. unfold sp_place. rewrite <- (N.add_0_r (3 * s)). now apply decode_at. Qed.

Lemma decode_ext flow fired m j :
  decode flow fired m (ext_place j) = nth (N.to_nat j) flow 0 - nth (N.to_nat j) fired 0.
Proof. now apply decode_at. Qed.

Lemma decode_tgt flow fired m j : decode flow fired m (tgt_place j) = nth (N.to_nat j) fired 0.
Proof. now apply decode_at. Qed.

Section Complete.
Variables (vertices : list N) (edges : list edge) (flow : list Z).

Let items := zip_flow (index_from 0%N edges) flow.
Let b := build_petri_net_from_flow vertices edges flow.
Let net := b_net b.
Let places := pn_places net.
Let start := marking_to_tuple net (b_M0 b).
Let target := marking_to_tuple net (b_MT b).
Notation mv := (mv vertices edges flow).
Notation sm := (sm vertices edges flow).

Lemma item_in_range it : In it items -> (N.to_nat (it_id it) < length edges)%nat.
Proof. intros H. destruct (item_edge edges flow it H) as [H1 _]. apply nth_error_Some. congruence. Qed.

Lemma tgt_in_places it : In it items -> In (tgt_place (it_id it)) places.
Proof. intros H. apply (places_mentions vertices edges flow it _ H), mentions_tgt. Qed.

Lemma ext_place_item j : In (ext_place j) places -> exists it, In it items /\ it_id it = j.
Proof.
  intros H. apply (places_shape vertices edges flow) in H as [[s H]|[it [Hit [H|H]]]].
  - symmetry in H. now apply sp_ext in H.
  - apply ext_inj in H. eauto.
  - now apply ext_tgt in H.
Qed.

Lemma ordering_path sq : forall m mt m',
  ordering edges m sq m' ->
  (forall s, sm mt s = m s) ->
  (forall j, In j sq -> count j sq <= mv mt (ext_place j)) ->
  exists mt', path net mt sq mt' /\ (forall s, sm mt' s = m' s).
Proof.
  induction sq as [|j sq IH]; intros m mt m' Ho Hsm Hsup.
  - exists mt. split; [constructor|]. intros s. rewrite Hsm. now apply (ordering_nil_inv edges).
  - apply ordering_cons_inv in Ho as (e & Hnth & Hcov & Ho').
    assert (Hj : (N.to_nat j < length edges)%nat) by (apply nth_error_Some; congruence).
    destruct (item_of_index edges flow j Hj) as [it [Hit <-]].
    destruct (item_edge edges flow it Hit) as [Hedge _].
    assert (He : e = it_edge it) by congruence. subst e.
    set (m1 := marking_to_tuple net (fire_t (mk_trans it) (combine places mt))).
    assert (Hstep : tstep net (mk_trans it) mt = Some m1).
    { apply tstep_Some. split; [|reflexivity].
      apply enabled_t_spec, (pre_covered it (mv mt)). split.
      - intros s w Hin Hw. unfold C20_Build.sm in Hsm. rewrite Hsm. now apply Hcov.
      - apply Z.le_trans with (count (it_id it) (it_id it :: sq)); [apply count_in_pos|apply Hsup]; simpl; auto. }
    destruct (IH (fire_edge (it_edge it) m) m1 m' Ho') as [mt' [Hp Hsm']].
    + intros s. rewrite (step_sm vertices edges flow it mt m1 Hit Hstep). unfold fire_edge. now rewrite Hsm.
    + intros j' Hj'. rewrite (step_ext vertices edges flow it mt m1 Hit Hstep).
      specialize (Hsup j' (or_intror Hj')). rewrite count_cons in Hsup. lia.
    + exists mt'. split; [|exact Hsm'].
      apply (path_cons net mt (mk_trans it) m1 sq mt'); auto.
      unfold net, b. rewrite trans_eq. now apply in_map.
Qed.

Lemma path_supply m s m' : path net m s m' -> forall j, In j s -> count j s <= mv m (ext_place j).
Proof.
  induction 1 as [m|m t m1 s m' Ht Hstep Hp IH]; intros j Hj; [destruct Hj|].
  unfold net, b in Ht. rewrite trans_eq in Ht. apply in_map_iff in Ht as [it [<- Hit]]. simpl in *.
  rewrite count_cons. destruct (in_dec N.eq_dec j s) as [Hin|Hni].
  - specialize (IH j Hin). rewrite (step_ext vertices edges flow it m m1 Hit Hstep) in IH. lia.
  - destruct Hj as [<-|Hj]; [|tauto]. rewrite (count_notin _ _ Hni), N.eqb_refl.
    destruct (step_covered vertices edges flow it m m1 Hstep) as [_ Hen]. lia.
Qed.

Lemma path_counts s m : path net start s m -> forall it, In it items ->
  mv m (ext_place (it_id it)) = snd it - count (it_id it) s /\
  mv m (tgt_place (it_id it)) = count (it_id it) s.
Proof.
  intros Hp it Hit. destruct (path_ordering vertices edges flow _ _ _ Hp) as (_ & Htgt & Hext & _).
  rewrite Hext, Htgt. unfold start, net, b. now rewrite !mv_start, M0_tgt, M0_ext.
Qed.

Lemma path_counts_bounded s m : path net start s m ->
  (forall j, In j s -> (N.to_nat j < length edges)%nat) /\
  (forall j, In j s -> count j s <= nth (N.to_nat j) flow 0).
Proof.
  intros Hp. destruct (path_ordering vertices edges flow _ _ _ Hp) as (_ & _ & _ & Hrng).
  split; auto. intros j Hj. pose proof (path_supply _ _ _ Hp j Hj) as H0.
  destruct (item_of_index edges flow j (Hrng j Hj)) as [it [Hit <-]].
  unfold start, net, b in H0. rewrite mv_start, M0_ext in H0 by exact Hit.
  destruct (item_edge edges flow it Hit) as [_ <-]. exact H0.
Qed.

Lemma path_length_bound s m : path net start s m -> Z.of_nat (length s) <= total_flow edges flow.
Proof.
  intros Hp. destruct (path_counts_bounded s m Hp) as [Hrng Hcnt].
  rewrite (length_sum_counts (length edges) s Hrng). unfold total_flow. apply sumf_le.
  intros k Hk. destruct (in_dec N.eq_dec (N.of_nat k) s) as [Hin|Hni].
  - specialize (Hcnt _ Hin). rewrite Nat2N.id in Hcnt. lia.
  - rewrite (count_notin _ _ Hni). lia.
Qed.

Lemma tuple_determined s m (f : N -> Z) : path net start s m ->
  (forall x, f (sp_place x) = sm m x) ->
  (forall it, In it items -> f (ext_place (it_id it)) = snd it - count (it_id it) s /\
                            f (tgt_place (it_id it)) = count (it_id it) s) ->
  m = map f places.
Proof.
  (* [m] is the tuple of some dict [d], and [d] reads as [m] on the places *)
  intros Hp Hsp Hit. destruct (path_tuple net _ _ _ Hp) as [d ->]; [unfold start; eauto|].
  apply map_ext_in. intros p Hp'.
  rewrite <- (get_combine_map (get d) places p Hp'). change (mv (marking_to_tuple net d) p = f p).
  destruct (places_shape vertices edges flow p Hp') as [[x ->]|[it [Hin [->| ->]]]].
  - symmetry. apply Hsp.
  - rewrite (proj1 (Hit it Hin)). apply (path_counts s _ Hp it Hin).
  - rewrite (proj2 (Hit it Hin)). apply (path_counts s _ Hp it Hin).
Qed.

Lemma realizes_path sq : realizes edges flow sq -> path net start sq target.
Proof.
  intros [Ho [Hcnt Hrng]].
  assert (Hfl : forall it, In it items -> snd it = count (it_id it) sq).
  { intros it Hit. destruct (item_edge edges flow it Hit) as [_ ->]. symmetry. now apply Hcnt, item_in_range. }
  destruct (ordering_path sq zero start zero Ho) as [mt' [Hp Hsm]].
  - apply sm_start.
  - intros j Hj. destruct (item_of_index edges flow j (Hrng j Hj)) as [it [Hit <-]].
    unfold start, net, b. rewrite mv_start, M0_ext, (Hfl it Hit) by exact Hit. lia.
  - replace target with mt'; [exact Hp|].
    apply (tuple_determined sq mt' (get (b_MT b)) Hp).
    + intros x. unfold b. now rewrite MT_sp, Hsm.
    + intros it Hit. unfold b. rewrite MT_ext, MT_tgt, (Hfl it Hit) by exact Hit. lia.
Qed.

Definition tuple_of (cm : list Z * smarking) : tuple := map (decode flow (fst cm) (snd cm)) places.

Lemma reachable_tuple_decoded s m (cm : list Z * smarking) : path net start s m ->
  (forall k, (k < length edges)%nat -> nth k (fst cm) 0 = count (N.of_nat k) s) ->
  (forall x, snd cm x = sm m x) ->
  m = tuple_of cm.
Proof.
  intros Hp Hc Hs. apply (tuple_determined s m _ Hp).
  - intros x. rewrite decode_sp. apply Hs.
  - intros it Hit. rewrite decode_ext, decode_tgt, Hc, N2Nat.id by (now apply item_in_range).
    destruct (item_edge edges flow it Hit) as [_ <-]. auto.
Qed.

Lemma is_realizable_complete_pathway (max_states max_depth : N) (R : list (list Z * smarking)) :
  (exists sq, realizes edges flow sq) ->
  (forall sq m, ordering edges zero sq m ->
                (forall j, In j sq -> (N.to_nat j < length edges)%nat) ->
                (forall j, In j sq -> count j sq <= nth (N.to_nat j) flow 0) ->
     exists cm, In cm R /\ (forall k, (k < length edges)%nat -> nth k (fst cm) 0 = count (N.of_nat k) sq) /\
                (forall x, snd cm x = m x)) ->
  (N.of_nat (length R) <= max_states)%N ->
  total_flow edges flow <= Z.of_N max_depth ->
  exists sq', bo_verdict (is_realizable b max_states max_depth) = Found sq'.
Proof.
  intros [sq Hsq] HR Hlen Hdepth.
  apply (is_realizable_complete vertices edges flow max_states max_depth (map tuple_of R)).
  - exists sq. now apply realizes_path.
  - intros s m Hp. fold b net start in Hp.
    destruct (path_ordering vertices edges flow _ _ _ Hp) as [Ho _].
    destruct (path_counts_bounded s m Hp) as [Hrng Hcnt].
    assert (Ho' : ordering edges zero s (sm m)).
    { eapply ordering_ext; [apply sm_start|reflexivity|exact Ho]. }
    destruct (HR s (sm m) Ho' Hrng Hcnt) as [cm [Hin [Hc Hs]]].
    apply in_map_iff. exists cm. split; auto. symmetry. eapply reachable_tuple_decoded; eauto.
  - rewrite map_length. exact Hlen.
  - intros s m Hp. fold b net start in Hp. pose proof (path_length_bound s m Hp). lia.
Qed.
End Complete.

(** non-vacuity: the pathway  0 -> A, A -> 0  with flow (1, 1): three reachable states
    (nothing fired / edge 0 fired, one A / both fired), the longest ordering has two steps; with
    max_states = 3 and max_depth = 2 every premise holds and the search answers [0; 1]. *)
Definition ex_edges : list edge := [([], [(0%N, 1)]); ([(0%N, 1)], [])].
Definition ex_A1 : smarking := fun s => if N.eqb s 0 then 1 else 0.
Definition ex_R : list (list Z * smarking) := [([0; 0], zero); ([1; 0], ex_A1); ([1; 1], zero)].

Lemma ex_range j : (N.to_nat j < 2)%nat -> j = 0%N \/ j = 1%N.
Proof. lia. Qed.

Ltac ex_cnt H :=
  rewrite !count_cons in H;
  try change (N.eqb 0 0) with true in H; try change (N.eqb 1 1) with true in H;
  try change (N.eqb 1 0) with false in H; try change (N.eqb 0 1) with false in H;
  try change (nth (N.to_nat 0) [1; 1] 0) with 1 in H; try change (nth (N.to_nat 1) [1; 1] 0) with 1 in H;
  cbv iota in H.

Example realizable_complete_nonvacuous :
  (exists sq, realizes ex_edges [1; 1] sq) /\
  (forall sq m, ordering ex_edges zero sq m ->
                (forall j, In j sq -> (N.to_nat j < length ex_edges)%nat) ->
                (forall j, In j sq -> count j sq <= nth (N.to_nat j) [1; 1] 0) ->
     exists cm, In cm ex_R /\ (forall k, (k < length ex_edges)%nat -> nth k (fst cm) 0 = count (N.of_nat k) sq) /\
                (forall x, snd cm x = m x)) /\
  (N.of_nat (length ex_R) <= 3)%N /\
  total_flow ex_edges [1; 1] <= Z.of_N 2 /\
  bo_verdict (is_realizable (build_petri_net_from_flow [0%N] ex_edges [1; 1]) 3 2) = Found [0%N; 1%N].
Proof.
  split; [|split; [|split; [|split]]].
  - exists [0%N; 1%N]. split; [|split].
    + apply ord_cons with (e := ([], [(0%N, 1)])); [reflexivity|intros s w []|].
      apply ord_cons with (e := ([(0%N, 1)], [])); [reflexivity| |].
      * intros s w [H|[]] _. inversion H; subst. vm_compute. discriminate.
      * constructor. intros s. unfold fire_edge, pweight, zero. simpl. destruct s; lia.
    + intros j Hj. destruct (ex_range j Hj) as [-> | ->]; reflexivity.
    + intros j [<-|[<-|[]]]; simpl; lia.
  - intros sq m Ho Hrng Hcnt. simpl length in Hrng.
    destruct sq as [|j1 sq].
    { pose proof (ordering_nil_inv _ _ _ Ho) as Heq. exists ([0; 0], zero). split; [simpl; auto|]. split.
      - intros k Hk. simpl in Hk. destruct k as [|[|]]; try lia; reflexivity.
      - intros x. simpl. apply Heq. }
    apply ordering_cons_inv in Ho as (e & Hnth & Hcov & Ho1).
    destruct (ex_range j1 (Hrng j1 (or_introl eq_refl))) as [-> | ->].
    2: { simpl in Hnth. inversion Hnth; subst e.
         specialize (Hcov 0%N 1 (or_introl eq_refl)). unfold zero in Hcov. lia. }
    simpl in Hnth. inversion Hnth; subst e. clear Hnth Hcov.
    destruct sq as [|j2 sq].
    { pose proof (ordering_nil_inv _ _ _ Ho1) as Heq. exists ([1; 0], ex_A1). split; [simpl; auto|]. split.
      - intros k Hk. simpl in Hk. destruct k as [|[|]]; try lia; reflexivity.
      - intros x. rewrite <- Heq. unfold ex_A1, fire_edge, pweight, zero. simpl.
        destruct x; reflexivity. }
    apply ordering_cons_inv in Ho1 as (e & Hnth2 & Hcov2 & Ho2).
    destruct (ex_range j2 (Hrng j2 (or_intror (or_introl eq_refl)))) as [-> | ->].
    { exfalso. specialize (Hcnt 0%N (or_introl eq_refl)). ex_cnt Hcnt.
      pose proof (count_nonneg 0 sq). lia. }
    simpl in Hnth2. inversion Hnth2; subst e. clear Hnth2 Hcov2.
    destruct sq as [|j3 sq].
    { pose proof (ordering_nil_inv _ _ _ Ho2) as Heq. exists ([1; 1], zero). split; [simpl; auto|]. split.
      - intros k Hk. simpl in Hk. destruct k as [|[|]]; try lia; reflexivity.
      - intros x. rewrite <- Heq. unfold fire_edge, pweight, zero. simpl. destruct x; lia. }
    exfalso.
    destruct (ex_range j3 (Hrng j3 (or_intror (or_intror (or_introl eq_refl))))) as [-> | ->].
    + specialize (Hcnt 0%N (or_introl eq_refl)). ex_cnt Hcnt.
      pose proof (count_nonneg 0 sq). lia.
    + specialize (Hcnt 1%N (or_intror (or_introl eq_refl))). ex_cnt Hcnt.
      pose proof (count_nonneg 1 sq). lia.
  - simpl. lia.
  - vm_compute. discriminate.
  - vm_compute. reflexivity.
Qed.
