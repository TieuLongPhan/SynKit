(** C08 — the canonical node order observable (model/C08_Obs.v) is the order the canonical graphs are built from. *)
From Coq Require Import List NArith ZArith Bool Arith Permutation.
From SK Require Import lib.LGraph model.C08_Model model.C08_Digraph model.C08_Obs proof.C08_Spec proof.C08_Sort proof.C08_Faithful.
Import ListNotations.

Lemma pos_of_mapping (p : list N) v : NoDup p -> In v p ->
  nth_error p (N.to_nat (apply_map (mapping_of p) v) - 1) = Some v.
Proof.
  intros Np Iv. pose proof (mapping_of_map p Np) as Hm.
  destruct (In_nth_error _ _ Iv) as (k & Hk).
  assert (Hlt : k < length p) by (apply nth_error_Some; rewrite Hk; discriminate).
  assert (E : apply_map (mapping_of p) v = N.of_nat (S k)).
  { pose proof (map_nth_error (apply_map (mapping_of p)) k p Hk) as H1. rewrite Hm in H1.
    rewrite (map_nth_error N.of_nat k (seq 1 (length p)) (d := S k)) in H1.
    - inversion H1. reflexivity.
    - rewrite nth_error_nth' with (d := 0) by (rewrite seq_length; exact Hlt). rewrite seq_nth by exact Hlt. reflexivity. }
  rewrite E, Nnat.Nat2N.id. simpl. rewrite Nat.sub_0_r. exact Hk.
Qed.

Theorem canonical_orders (ranks : list (N * Z)) (g : graph) :
  canon_generic g = rebuild g (generic_order g) /\ Permutation (generic_order g) (node_ids g) /\
  canon_rank ranks g = rebuild g (rank_order ranks g) /\ Permutation (rank_order ranks g) (node_ids g) /\
  (NoDup (node_ids g) -> forall v, In v (node_ids g) ->
     nth_error (generic_order g) (N.to_nat (apply_map (mapping_of (generic_order g)) v) - 1) = Some v).
Proof.
  split; [reflexivity|]. split; [apply generic_order_perm|]. split; [reflexivity|]. split; [apply sort_by_perm|].
  intros Hnd v Iv. pose proof (generic_order_perm g) as Hp. apply pos_of_mapping.
  - exact (Permutation_NoDup (Permutation_sym Hp) Hnd).
  - apply (Permutation_in _ (Permutation_sym Hp)). exact Iv.
Qed.

Example order_ex : node_ids (rebuild ex_g (generic_order ex_g)) = [1%N; 2%N; 3%N] /\ length (generic_order ex_g) = 3.
Proof. apply conj; vm_compute; reflexivity. Qed.

Print Assumptions canonical_orders.
