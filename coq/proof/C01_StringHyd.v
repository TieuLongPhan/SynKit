(** C01 — proofs about model/C01_String.v, part 2: implicit_hydrogen *)
From Coq Require Import List NArith ZArith Bool Lia Arith Permutation.
From SK Require Import lib.LGraph lib.C01_GraphLemmas model.C01_Model model.C02_Model model.C01_String proof.C01_Proof.
Import ListNotations.
Local Open Scope Z_scope.

(** * list counting *)
Lemma filter_length_split {X} (p : X -> bool) (l : list X) x :
  length (filter p (x :: l)) = ((if p x then 1 else 0) + length (filter p l))%nat.
Proof. simpl. destruct (p x); reflexivity. Qed.

(** for duplicate-free L and P: |{x in L : x in P}| = |{h in P : h in L}| *)
Lemma filter_mem_swap (L P : list N) : NoDup L -> NoDup P ->
  length (filter (fun m => mem m P) L) = length (filter (fun h => mem h L) P).
Proof.
  intros HL HP. apply Permutation_length, NoDup_Permutation; try (apply NoDup_filter; assumption).
  intros x. rewrite !filter_In, !mem_spec. tauto.
Qed.

Lemma count_occ_nodup (l : list N) n : NoDup l -> count_occ N.eq_dec l n = if mem n l then 1%nat else 0%nat.
Proof.
  induction l as [|x l IH]; intros Hn; [reflexivity|]. inversion Hn as [|? ? Hx Hn']; subst.
  cbn [count_occ mem existsb]. fold (mem n l). destruct (N.eq_dec x n) as [->|Hne].
  - rewrite N.eqb_refl. cbn [orb]. rewrite IH by assumption.
    destruct (mem n l) eqn:M; [apply mem_spec in M; contradiction|reflexivity].
  - destruct (N.eqb_spec n x); [congruence|]. cbn [orb]. apply IH. assumption.
Qed.

Lemma count_occ_filter_true (f : N -> bool) (l : list N) n : f n = true ->
  count_occ N.eq_dec (filter f l) n = count_occ N.eq_dec l n.
Proof.
  intros Hf. induction l as [|x l IH]; [reflexivity|]. cbn [filter count_occ].
  destruct (N.eq_dec x n) as [->|Hne].
  - rewrite Hf. cbn [count_occ]. destruct (N.eq_dec n n); [|congruence]. rewrite IH. reflexivity.
  - destruct (f x); cbn [count_occ]; [destruct (N.eq_dec x n); [congruence|]|]; exact IH.
Qed.

Lemma count_occ_filter_false (f : N -> bool) (l : list N) n : f n = false -> count_occ N.eq_dec (filter f l) n = 0%nat.
Proof.
  intros Hf. induction l as [|x l IH]; [reflexivity|]. cbn [filter].
  destruct (f x) eqn:Fx; [|exact IH]. cbn [count_occ]. destruct (N.eq_dec x n) as [->|]; [congruence|exact IH].
Qed.

Lemma count_occ_flat_map (f : N -> list N) (P : list N) n :
  count_occ N.eq_dec (flat_map f P) n = fold_right (fun h acc => (count_occ N.eq_dec (f h) n + acc)%nat) 0%nat P.
Proof. induction P as [|h P IH]; [reflexivity|]. cbn [flat_map fold_right]. rewrite count_occ_app, IH. reflexivity. Qed.

(** * neighbour lists of a well-formed graph have no duplicates *)
Section Nbrs.
Variables A B : Type.
Implicit Type g : lgraph A B.

Lemma nbrs_nodup g u : wf g -> NoDup (nbrs g u).
Proof.
  intros W. pose proof (wf_simple W) as Hs.
  assert (forall a b x, In (a, b, x) (gedges g) -> a <> b) as Hd by (intros a b x I; apply (wf_edge_nodes W I)).
  destruct g as [ns es]. unfold nbrs. cbn [gedges] in *. clear W ns.
  induction Hs as [|a b x es Hn Hs IH]; [constructor|].
  cbn [flat_map].
  assert (NoDup (flat_map (fun e : N * N * B => let '(a0, b0, _) := e in
                 if N.eqb a0 u then [b0] else if N.eqb b0 u then [a0] else []) es)) as IH'
    by (apply IH; intros a' b' x' I; apply (Hd a' b' x'); right; exact I).
  assert (forall v, In v (nbrs (LG ([] : list (N * A)) es) u) <-> find_edge u v es <> None) as Hin
    by (intros v; apply in_nbrs).
  unfold nbrs in Hin. cbn [gedges] in Hin.
  destruct (N.eqb_spec a u) as [->|Hau].
  - cbn [app]. constructor; [|exact IH']. rewrite Hin. rewrite Hn. congruence.
  - destruct (N.eqb_spec b u) as [->|Hbu]; [|exact IH'].
    cbn [app]. constructor; [|exact IH']. rewrite Hin, find_edge_sym, Hn. congruence.
Qed.

Lemma mem_nbrs_sym g u v : mem u (nbrs g v) = mem v (nbrs g u).
Proof. apply eq_true_iff_eq. rewrite !mem_spec, !in_nbrs, adj_sym. reflexivity. Qed.

(** edges filtered by a predicate on both endpoints *)
Definition keep_edges (kp : N -> bool) (es : list (N * N * B)) : list (N * N * B) :=
  filter (fun e => let '(a, b, _) := e in kp a && kp b) es.

Lemma find_edge_keep kp es u v :
  find_edge u v (keep_edges kp es) = if kp u && kp v then find_edge u v es else None.
Proof. apply (find_edge_filter_sym (fun a b => kp a && kp b)). intros a b. apply andb_comm. Qed.

Lemma nbrs_keep kp ns es u :
  nbrs (LG (ns : list (N * A)) (keep_edges kp es)) u = if kp u then filter kp (nbrs (LG ns es) u) else [].
Proof.
  unfold nbrs. cbn [gedges]. induction es as [|[[a b] x] r IH]; cbn [keep_edges filter flat_map]; [destruct (kp u); reflexivity|].
  fold (keep_edges kp r). destruct (kp a && kp b) eqn:K.
  - cbn [flat_map]. rewrite IH. apply andb_true_iff in K. destruct K as [Ka Kb].
    destruct (N.eqb_spec a u) as [->|Hau].
    + rewrite Ka. cbn [app filter]. rewrite Kb. reflexivity.
    + destruct (N.eqb_spec b u) as [->|Hbu]; [rewrite Kb; cbn [app filter]; rewrite Ka; reflexivity|].
      destruct (kp u); reflexivity.
  - rewrite IH. destruct (kp u) eqn:Ku; [|reflexivity]. rewrite filter_app.
    destruct (N.eqb_spec a u) as [->|Hau].
    + rewrite Ku in K. cbn [andb] in K. cbn [filter]. rewrite K. reflexivity.
    + destruct (N.eqb_spec b u) as [->|Hbu]; [|reflexivity].
      rewrite Ku, andb_true_r in K. cbn [filter]. rewrite K. reflexivity.
Qed.
End Nbrs.

(** * implicit_hydrogen *)
Lemma set_hc_set a x y : set_hc (set_hc a x) y = set_hc a y.
Proof. reflexivity. Qed.
Lemma set_hc_id a : set_hc a (g_hc a) = a.
Proof. destruct a; reflexivity. Qed.

(** the second pass as one flat list of decrements *)
Definition decs (g : mgraph) (P : list N) : list N :=
  flat_map (fun h => filter (fun nb => negb (is_Hn g nb)) (nbrs g h)) P.

Lemma pass2_h_filter (g : mgraph) l ns :
  fold_left (fun ns nb => if is_Hn g nb then ns else dec_hc nb ns) l ns =
  fold_left (fun ns n => dec_hc n ns) (filter (fun nb => negb (is_Hn g nb)) l) ns.
Proof. revert ns. induction l as [|a l IH]; intros ns; simpl; [reflexivity|]. destruct (is_Hn g a); simpl; apply IH. Qed.

Lemma pass2_flat (g : mgraph) P ns :
  fold_left (ih_pass2_h g) P ns = fold_left (fun ns n => dec_hc n ns) (decs g P) ns.
Proof.
  revert ns. induction P as [|h P IH]; intros ns; [reflexivity|].
  unfold decs. cbn [fold_left flat_map]. rewrite fold_left_app. unfold ih_pass2_h at 2. rewrite <- pass2_h_filter. apply IH.
Qed.

Lemma dec_hc_assoc k ns n :
  assoc n (dec_hc k ns) = option_map (fun a => if N.eqb n k then set_hc a (g_hc a - 1) else a) (assoc n ns).
Proof.
  unfold dec_hc.
  rewrite (map_ext _ (fun p => (fst p, (fun key (a : gnode) => if N.eqb key k then set_hc a (g_hc a - 1) else a) (fst p) (snd p)))).
  - apply (assoc_map_val (fun key (a : gnode) => if N.eqb key k then set_hc a (g_hc a - 1) else a)).
  - intros [key a]. cbn [fst snd]. destruct (N.eqb key k); reflexivity.
Qed.

Lemma dec_hc_keys k ns : map fst (dec_hc k ns) = map fst ns.
Proof. unfold dec_hc. rewrite map_map. apply map_ext. intros [key a]. cbn [fst]. destruct (N.eqb key k); reflexivity. Qed.

Lemma decs_assoc ds ns n :
  assoc n (fold_left (fun ns k => dec_hc k ns) ds ns) =
  option_map (fun a => set_hc a (g_hc a - Z.of_nat (count_occ N.eq_dec ds n))) (assoc n ns).
Proof.
  revert ns. induction ds as [|k r IH]; intros ns.
  - cbn [fold_left count_occ]. destruct (assoc n ns) as [a|]; [|reflexivity]. cbn [option_map].
    rewrite Z.sub_0_r, set_hc_id. reflexivity.
  - cbn [fold_left]. rewrite IH, dec_hc_assoc. destruct (assoc n ns) as [a|]; [|reflexivity]. cbn [option_map count_occ].
    f_equal. destruct (N.eq_dec k n) as [->|Hne].
    + rewrite N.eqb_refl, set_hc_set. cbn [set_hc g_hc]. f_equal. lia.
    + destruct (N.eqb_spec n k); [congruence|]. reflexivity.
Qed.

Lemma decs_keys ds ns : map fst (fold_left (fun ns k => dec_hc k ns) ds ns) = map fst ns.
Proof. revert ns. induction ds as [|k r IH]; intros ns; [reflexivity|]. cbn [fold_left]. rewrite IH. apply dec_hc_keys. Qed.

Lemma pass1_assoc (g : mgraph) n :
  assoc n (ih_pass1 g) = option_map (fun a => if is_H a then a else set_hc a (count_h g n + g_hc a)) (label g n).
Proof.
  unfold ih_pass1, label.
  rewrite (map_ext _ (fun p => (fst p, (fun key (a : gnode) => if is_H a then a else set_hc a (count_h g key + g_hc a)) (fst p) (snd p)))).
  - apply (assoc_map_val (fun key (a : gnode) => if is_H a then a else set_hc a (count_h g key + g_hc a))).
  - intros [key a]. cbn [fst snd]. unfold is_H. destruct (N.eqb (g_el a) EL_H); reflexivity.
Qed.

Lemma pass1_keys (g : mgraph) : map fst (ih_pass1 g) = node_ids g.
Proof. unfold ih_pass1, node_ids. rewrite map_map. apply map_ext. intros [k a]. cbn [fst snd]. destruct (N.eqb (g_el a) EL_H); reflexivity. Qed.

Lemma count_decs_H (g : mgraph) P n : is_Hn g n = true -> count_occ N.eq_dec (decs g P) n = 0%nat.
Proof.
  intros Hn. unfold decs. induction P as [|h P IH]; [reflexivity|]. cbn [flat_map]. rewrite count_occ_app, IH.
  rewrite count_occ_filter_false; [reflexivity|]. rewrite Hn. reflexivity.
Qed.

Lemma count_decs_heavy (g : mgraph) P n : wf g -> is_Hn g n = false ->
  count_occ N.eq_dec (decs g P) n = length (filter (fun h => mem n (nbrs g h)) P).
Proof.
  intros W Hn. unfold decs. induction P as [|h P IH]; [reflexivity|]. cbn [flat_map]. rewrite count_occ_app, IH.
  rewrite count_occ_filter_true by (rewrite Hn; reflexivity). rewrite (count_occ_nodup _ _ (@nbrs_nodup _ _ g h W)).
  rewrite filter_length_split. reflexivity.
Qed.

Lemma has_heavy_spec (g : mgraph) n : has_heavy g n = true <-> exists m, In m (nbrs g n) /\ is_Hn g m = false.
Proof.
  unfold has_heavy. rewrite existsb_exists. split; intros (m & I & H); exists m; (split; [exact I|]); destruct (is_Hn g m); cbn in *; congruence.
Qed.

(** the label of every node after implicit_hydrogen (no well-formedness needed) *)
Lemma ih_label (g : mgraph) pres n :
  label (implicit_hydrogen g pres) n =
  if ih_removed g pres n then None
  else option_map (fun a => if is_H a then a
                            else set_hc a (count_h g n + g_hc a - Z.of_nat (count_occ N.eq_dec (decs g (preserved g pres)) n)))
                  (label g n).
Proof.
  unfold label at 1, implicit_hydrogen. cbn [gnodes].
  rewrite (assoc_filter (fun k => negb (ih_removed g pres k))).
  destruct (ih_removed g pres n) eqn:R; cbn [negb]; [reflexivity|].
  rewrite pass2_flat, decs_assoc, pass1_assoc.
  destruct (label g n) as [a|] eqn:L; [|reflexivity]. cbn [option_map]. f_equal.
  destruct (is_H a) eqn:Ha.
  - rewrite count_decs_H; [rewrite Z.sub_0_r; apply set_hc_id|]. unfold is_Hn. rewrite L. exact Ha.
  - rewrite set_hc_set. reflexivity.
Qed.

(** the atoms that remain keep being (non-)hydrogens *)
Lemma ih_kept_isHn (g : mgraph) pres m : ih_removed g pres m = false -> is_Hn (implicit_hydrogen g pres) m = is_Hn g m.
Proof.
  intros Rm. unfold is_Hn at 1. rewrite ih_label, Rm. unfold is_Hn. destruct (label g m) as [b|]; [|reflexivity].
  cbn [option_map]. fold (is_H b). destruct (is_H b) eqn:Hb; [exact Hb|]. cbn [set_hc g_el]. exact Hb.
Qed.

Lemma ih_adj (g : mgraph) pres u v :
  adj (implicit_hydrogen g pres) u v =
  if negb (ih_removed g pres u) && negb (ih_removed g pres v) then adj g u v else None.
Proof. unfold adj, implicit_hydrogen. cbn [gedges]. apply (@find_edge_keep _ (fun k => negb (ih_removed g pres k))). Qed.

Lemma ih_nbrs (g : mgraph) pres n :
  nbrs (implicit_hydrogen g pres) n =
  if negb (ih_removed g pres n) then filter (fun k => negb (ih_removed g pres k)) (nbrs g n) else [].
Proof.
  unfold implicit_hydrogen.
  exact (@nbrs_keep _ _ (fun k => negb (ih_removed g pres k)) _ (gedges g) n).
Qed.

Lemma preserved_nodup (g : mgraph) pres : wf g -> NoDup (preserved g pres).
Proof. intros W. unfold preserved. apply NoDup_map_fst_filter. apply W. Qed.

Lemma preserved_spec (g : mgraph) pres h : wf g ->
  (In h (preserved g pres) <-> exists a, label g h = Some a /\ is_H a = true /\ memZ (g_amap a) pres = true).
Proof.
  intros W. unfold preserved. rewrite in_map_iff. split.
  - intros ([k a] & E & I). cbn [fst] in E. subst k. apply filter_In in I. destruct I as [I F]. cbn [snd] in F.
    apply andb_true_iff in F. destruct F as [F1 F2]. exists a. split; [|split; assumption].
    apply assoc_nodup_in; [apply W|exact I].
  - intros (a & L & F1 & F2). exists (h, a). split; [reflexivity|]. apply filter_In. split; [apply assoc_in; exact L|].
    cbn [snd]. unfold is_H in F1. rewrite F1, F2. reflexivity.
Qed.

Lemma preserved_isH (g : mgraph) pres h : wf g -> In h (preserved g pres) -> is_Hn g h = true.
Proof. intros W I. apply (preserved_spec g pres h W) in I. destruct I as (a & L & F & _). unfold is_Hn. rewrite L. exact F. Qed.

Lemma count_pres_nbrs (g : mgraph) pres n : wf g ->
  count_pres g pres n = Z.of_nat (length (filter (fun m => mem m (preserved g pres)) (nbrs g n))).
Proof.
  intros W. unfold count_pres. f_equal.
  rewrite (filter_ext (fun h => mem n (nbrs g h)) (fun h => mem h (nbrs g n))) by (intros h; apply mem_nbrs_sym).
  symmetry. apply filter_mem_swap; [apply nbrs_nodup; exact W|apply preserved_nodup; exact W].
Qed.

Theorem implicit_hydrogen_spec (g : mgraph) (pres : list Z) : wf g ->
  let g' := implicit_hydrogen g pres in
  (* atoms: a hydrogen stays iff its atom_map is preserved or it has no non-hydrogen neighbour; every other atom stays,
     with hcount + folded hydrogens *)
  (forall n, label g' n =
     match label g n with
     | None => None
     | Some a => if is_H a then (if mem n (preserved g pres) || negb (has_heavy g n) then Some a else None)
                 else Some (set_hc a (g_hc a + count_h g n - count_pres g pres n))
     end) /\
  (* bonds: exactly the bonds between remaining atoms *)
  (forall u v, adj g' u v = if negb (ih_removed g pres u) && negb (ih_removed g pres v) then adj g u v else None) /\
  (* the hydrogen total of every non-hydrogen atom is unchanged *)
  (forall n a, label g n = Some a -> is_H a = false ->
     exists a', label g' n = Some a' /\ g_hc a' + count_h g' n = g_hc a + count_h g n /\
                g_el a' = g_el a /\ g_arom a' = g_arom a /\ g_ch a' = g_ch a /\ g_nb a' = g_nb a /\ g_amap a' = g_amap a).
Proof.
  intros W g'. subst g'.
  assert (forall n, label (implicit_hydrogen g pres) n =
     match label g n with
     | None => None
     | Some a => if is_H a then (if mem n (preserved g pres) || negb (has_heavy g n) then Some a else None)
                 else Some (set_hc a (g_hc a + count_h g n - count_pres g pres n))
     end) as HL.
  { intros n. rewrite ih_label. unfold ih_removed, is_Hn. destruct (label g n) as [a|] eqn:L; [|reflexivity].
    fold (is_H a). destruct (is_H a) eqn:Ha; cbn [andb].
    - destruct (mem n (preserved g pres)); cbn [andb orb negb option_map]; [rewrite Ha; reflexivity|].
      destruct (has_heavy g n); cbn [negb option_map]; [|rewrite Ha]; reflexivity.
    - cbn [option_map]. rewrite Ha. f_equal. f_equal.
      rewrite count_decs_heavy; [unfold count_pres; lia|exact W|]. unfold is_Hn. rewrite L. exact Ha. }
  split; [exact HL|]. split; [intros u v; apply ih_adj|].
  intros n a L Ha. rewrite HL, L, Ha. eexists. split; [reflexivity|]. cbn [set_hc g_hc g_el g_arom g_ch g_nb g_amap].
  split; [|repeat split].
  (* count_h of the result *)
  assert (is_Hn g n = false) as Hnn by (unfold is_Hn; rewrite L; exact Ha).
  assert (ih_removed g pres n = false) as Rn by (unfold ih_removed; rewrite Hnn; reflexivity).
  assert (count_h (implicit_hydrogen g pres) n = count_pres g pres n) as ->; [|lia].
  rewrite (count_pres_nbrs g pres n W). unfold count_h. f_equal.
  rewrite ih_nbrs, Rn. cbn [negb].
  (* a hydrogen bonded to n has a non-hydrogen neighbour (n itself): it is removed iff it is not preserved *)
  assert (Forall (fun m => is_Hn g m = true -> has_heavy g m = true) (nbrs g n)) as FH.
  { apply Forall_forall. intros m Im Hm. unfold has_heavy. apply existsb_exists. exists n. split; [|rewrite Hnn; reflexivity].
    apply mem_spec. rewrite mem_nbrs_sym. apply mem_spec. exact Im. }
  remember (nbrs g n) as l eqn:El. clear El.
  induction FH as [|m l Pm FH IH]; [reflexivity|].
  cbn [filter]. destruct (ih_removed g pres m) eqn:Rm; cbn [negb].
  - assert (mem m (preserved g pres) = false) as ->; [|exact IH].
    unfold ih_removed in Rm. apply andb_true_iff in Rm. destruct Rm as [Rm _]. apply andb_true_iff in Rm. destruct Rm as [_ Rm].
    destruct (mem m (preserved g pres)); [discriminate|reflexivity].
  - cbn [filter]. rewrite (ih_kept_isHn g pres m Rm). unfold ih_removed in Rm.
    destruct (is_Hn g m) eqn:Hm; cbn [andb] in Rm.
    + rewrite (Pm eq_refl) in Rm. destruct (mem m (preserved g pres)); [cbn [length]; rewrite IH; reflexivity|discriminate].
    + assert (mem m (preserved g pres) = false) as ->; [|exact IH].
      destruct (mem m (preserved g pres)) eqn:M; [|reflexivity]. apply mem_spec in M.
      rewrite (preserved_isH g pres m W M) in Hm. discriminate.
Qed.
