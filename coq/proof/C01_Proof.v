(** C01 — proofs about model/C01_Model.v (its_construct, its_decompose): the default options of proof/C01_OptsProof.v,
    the string contract S1 and the running example. *)
From Coq Require Import List NArith ZArith Bool Lia.
From SK Require Import lib.LGraph lib.C01_GraphLemmas model.C01_Model model.C01_Opts proof.C01_OptsProof.
Import ListNotations.
Local Open Scope Z_scope.

(** * construct: [its_construct G H] unfolds to [its_construct_gen (its_node G H) default_opts G H] (construct_default), so
    the lemmas of Section Gen apply as they stand *)
Definition its_edges (G H : mgraph) : list (N * N * iedge) :=
  map (fun e => let '(u, v, o) := e in (u, v, mk_iedge o (order_in H u v))) (gedges G)
  ++ map (fun e => let '(u, v, o) := e in (u, v, mk_iedge 0 o)) (filter (absent_in G) (gedges H)).

Lemma gedges_its G H : gedges (its_construct G H) = its_edges G H.
Proof. reflexivity. Qed.

Lemma its_adj G H u v :
  adj (its_construct G H) u v =
  match adj G u v, adj H u v with
  | None, None => None
  | _, _ => Some (mk_iedge (order_in G u v) (order_in H u v))
  end.
Proof. exact (gen_adj inode (its_node G H) default_opts G H u v). Qed.

Definition its_base (G H : mgraph) := if base_is_G G H then G else H.
Definition its_other (G H : mgraph) := if base_is_G G H then H else G.

Lemma its_label G H n :
  label (its_construct G H) n =
  match label (its_base G H) n with
  | Some a => Some (its_node G H n (g_amap a))
  | None => match label (its_other G H) n with
            | Some a => Some (its_node G H n (g_amap a))
            | None => None
            end
  end.
Proof. exact (gen_label inode (its_node G H) default_opts G H n). Qed.

Lemma its_node_ids G H n :
  In n (node_ids (its_construct G H)) <-> In n (node_ids G) \/ In n (node_ids H).
Proof. exact (gen_node_ids inode (its_node G H) default_opts G H n). Qed.

Lemma its_label_types G H n a : label (its_construct G H) n = Some a ->
  i_G a = side_tuple G n /\ i_H a = side_tuple H n /\
  i_el a = a_el (side_tuple G n) /\ i_ch a = a_ch (side_tuple G n) /\
  i_extra a = Some (a_arom (side_tuple G n), a_hc (side_tuple G n), a_nb (side_tuple G n)).
Proof.
  intros L. destruct (gen_label_mk inode (its_node G H) default_opts G H n a L) as (m & -> & _). simpl. auto.
Qed.

Lemma its_nodup G H : wf G -> wf H -> NoDup (node_ids (its_construct G H)).
Proof. exact (gen_nodup inode (its_node G H) default_opts G H). Qed.

Lemma its_wf G H : wf G -> wf H -> wf (its_construct G H).
Proof. exact (gen_wf inode (its_node G H) default_opts G H). Qed.

Lemma its_std_consistent G H : std_consistent (its_construct G H).
Proof. exact (gen_std inode (its_node G H) default_opts G H). Qed.

(** * its_decompose: [dec_side] is [dec_side_gen] on [inode] *)
Lemma dec_label sn se (I : its) n :
  label (dec_side sn se I) n = option_map (fun a => dec_node (sn a) n) (label I n).
Proof. exact (decg_label inode sn se I n). Qed.

Lemma in_dec_edges sn se (I : its) a b o :
  In (a, b, o) (gedges (dec_side sn se I)) <-> exists x, In (a, b, x) (gedges I) /\ 0 < se x /\ o = se x.
Proof. exact (in_decg_edges inode sn se I a b o). Qed.

Lemma dec_adj sn se (I : its) u v : consistent (gedges I) ->
  adj (dec_side sn se I) u v =
  match adj I u v with Some x => if 0 <? se x then Some (se x) else None | None => None end.
Proof. exact (decg_adj inode sn se I u v). Qed.

Lemma dec_amap_id sn se (I : its) : amap_id (dec_side sn se I).
Proof. exact (decg_amap_id inode sn se I). Qed.

Theorem roundtrip G H : wf G -> wf H -> same_nodes G H -> orders_pos G -> orders_pos H ->
  geq_sel (fst (its_decompose (its_construct G H))) G /\ amap_id (fst (its_decompose (its_construct G H))) /\
  geq_sel (snd (its_decompose (its_construct G H))) H /\ amap_id (snd (its_decompose (its_construct G H))).
Proof. intros WG WH S PG PH. exact (proj1 (roundtrip_opts default_opts G H WG WH S PG PH)). Qed.

Theorem union G H : wf G -> wf H ->
  let I := its_construct G H in
  (forall n, In n (node_ids I) <-> In n (node_ids G) \/ In n (node_ids H)) /\
  (forall n a, label I n = Some a -> i_G a = side_tuple G n /\ i_H a = side_tuple H n) /\
  (forall u v a b s, adj I u v = Some (IE a b s) <->
      a = order_in G u v /\ b = order_in H u v /\ (adj G u v <> None \/ adj H u v <> None) /\ s = a - b) /\
  std_consistent I /\ wf I.
Proof.
  intros WG WH I. subst I. destruct (union_opts default_opts G H WG WH) as (Hn & Hl & _ & Ha & _ & Hs & _ & Hw & _).
  split; [intros n; apply Hn|]. split; [|split; [exact Ha|split; [exact Hs|exact Hw]]].
  intros n a L. destruct (Hl n a L) as (E1 & E2 & _). split; assumption.
Qed.

Lemma construct_equivariant (f : N -> N) (Hinj : forall a b, f a = f b -> a = b) G H :
  its_construct (relabel f G) (relabel f H) = relabel f (its_construct G H).
Proof. exact (construct_o_equivariant f Hinj default_opts G H). Qed.

Lemma decompose_equivariant (f : N -> N) (I : its) :
  its_decompose (relabel f I) =
  (set_amap (relabel f (fst (its_decompose I))), set_amap (relabel f (snd (its_decompose I)))).
Proof. unfold its_decompose. cbn [fst snd]. rewrite !(decg_side_equivariant f i_G), !(decg_side_equivariant f i_H). reflexivity. Qed.

Theorem equivariant (f : N -> N) : (forall a b, f a = f b -> a = b) -> forall (G H : mgraph) (I : its),
  its_construct (relabel f G) (relabel f H) = relabel f (its_construct G H) /\
  its_decompose (relabel f I) =
    (set_amap (relabel f (fst (its_decompose I))), set_amap (relabel f (snd (its_decompose I)))).
Proof. intros Hinj G H I. split; [apply construct_equivariant; exact Hinj|apply decompose_equivariant]. Qed.

(** set_amap is the identity on what its_decompose returns *)
Lemma set_amap_dec sn se (I : its) : set_amap (dec_side sn se I) = dec_side sn se I.
Proof.
  unfold set_amap, dec_side. simpl. f_equal. rewrite map_map. apply map_ext. intros [k a]. reflexivity.
Qed.

(** * C01_one_sided_refuted: a node present on the reactant side only comes back as a "*" atom on the product side *)
Definition ex_G1 : mgraph := LG [(1%N, GN 70%N false 4 0 (Some []) 1)] [].
Definition ex_H0 : mgraph := LG [] [].

Theorem one_sided_refuted :
  exists G H : mgraph, wf G /\ wf H /\ orders_pos G /\ orders_pos H /\ ~ same_nodes G H /\
    ~ geq_sel (snd (its_decompose (its_construct G H))) H.
Proof.
  exists ex_G1, ex_H0. split; [|split; [|split; [|split; [|split]]]].
  - apply wfb_spec. reflexivity.
  - apply wfb_spec. reflexivity.
  - intros u v o [].
  - intros u v o [].
  - intros S. destruct (proj1 (S 1%N)). left. reflexivity.
  - intros [L _]. specialize (L 1%N). vm_compute in L. discriminate.
Qed.

(** * C01_rsmi_partial: the string round trip relative to the RDKit contract S1 *)
Lemma geq_sel_trans (g1 g2 g3 : mgraph) : geq_sel g1 g2 -> geq_sel g2 g3 -> geq_sel g1 g3.
Proof. intros [A1 A2] [B1 B2]. split; intros; etransitivity; eauto. Qed.

Theorem rsmi_partial (rsmi : Type) (parse : rsmi -> option (mgraph * mgraph))
        (write : mgraph -> mgraph -> its -> option rsmi) :
  (forall g h I s, write g h I = Some s ->
     exists g' h', parse s = Some (g', h') /\ geq_sel g' g /\ geq_sel h' h) ->
  forall r G H, parse r = Some (G, H) -> wf G -> wf H -> same_nodes G H -> orders_pos G -> orders_pos H ->
  forall I s, rsmi_to_its parse r = Some I -> its_to_rsmi write I = Some s ->
  exists G' H', parse s = Some (G', H') /\ geq_sel G' G /\ geq_sel H' H.
Proof.
  intros S1 r G H P WG WH S PG PH I s RI WR.
  unfold rsmi_to_its in RI. rewrite P in RI. inversion RI; subst I. clear RI.
  unfold its_to_rsmi in WR. destruct (its_decompose (its_construct G H)) as [g h] eqn:D.
  destruct (S1 _ _ _ _ WR) as (g' & h' & P' & E1 & E2).
  destruct (roundtrip G H WG WH S PG PH) as (R1 & _ & R2 & _). rewrite D in R1, R2. simpl in R1, R2.
  exists g', h'. split; [exact P'|]. split; eapply geq_sel_trans; eauto.
Qed.

(** * non-vacuity: a 4-atom substitution  C1-Br2 + O3-H4 -> C1-O3 + Br2-H4  *)
Definition ex_na (el : N) (hc : Z) (m : Z) : gnode := GN el false hc 0 (Some []) m.
Definition ex_G : mgraph :=
  LG [(1%N, ex_na 70%N 3 1); (2%N, ex_na 17013%N 0 2); (3%N, ex_na 82%N 1 3); (4%N, ex_na 2%N 0 4)]
     [(1%N, 2%N, 2); (3%N, 4%N, 2)].
Definition ex_H : mgraph :=
  LG [(1%N, ex_na 70%N 3 1); (2%N, ex_na 17013%N 0 2); (3%N, ex_na 82%N 1 3); (4%N, ex_na 2%N 0 4)]
     [(3%N, 1%N, 2); (4%N, 2%N, 2)].

Lemma ex_G_wf : wf ex_G.
Proof.
  apply wfb_spec. reflexivity.
Qed.
Lemma ex_H_wf : wf ex_H.
Proof.
  apply wfb_spec. reflexivity.
Qed.
Lemma ex_same : same_nodes ex_G ex_H.
Proof. intros n. reflexivity. Qed.
Lemma ex_pos_G : orders_pos ex_G.
Proof. intros u v o [E|[E|[]]]; inversion E; lia. Qed.
Lemma ex_pos_H : orders_pos ex_H.
Proof. intros u v o [E|[E|[]]]; inversion E; lia. Qed.

(** the hypotheses of C01_roundtrip / C01_union are satisfiable and the ITS is not trivial:
    four bonds, all of them changed *)
Example C01_nonvacuous :
  wf ex_G /\ wf ex_H /\ same_nodes ex_G ex_H /\ orders_pos ex_G /\ orders_pos ex_H /\
  adj (its_construct ex_G ex_H) 1%N 2%N = Some (IE 2 0 2) /\
  adj (its_construct ex_G ex_H) 1%N 3%N = Some (IE 0 2 (-2)) /\
  length (gedges (its_construct ex_G ex_H)) = 4%nat /\
  gedges (fst (its_decompose (its_construct ex_G ex_H))) = gedges ex_G.
Proof.
  split; [apply ex_G_wf|]. split; [apply ex_H_wf|]. split; [apply ex_same|]. split; [apply ex_pos_G|].
  split; [apply ex_pos_H|]. repeat split.
Qed.

(** equivariance is not vacuous: a non-identity injective renumbering moves the ITS *)
Example C01_equivariant_nonvacuous :
  its_construct (relabel (N.add 10) ex_G) (relabel (N.add 10) ex_H) = relabel (N.add 10) (its_construct ex_G ex_H) /\
  relabel (N.add 10) (its_construct ex_G ex_H) <> its_construct ex_G ex_H.
Proof.
  split; [apply construct_equivariant; intros a b; apply N.add_cancel_l|]. intros E. vm_compute in E. discriminate.
Qed.

(** the RDKit contract S1 is satisfiable: with reaction strings = graph pairs, parse = Some, write = Some *)
Example C01_rsmi_nonvacuous :
  let parse := fun r : mgraph * mgraph => Some r in
  let write := fun (g h : mgraph) (_ : its) => Some (g, h) in
  (forall g h I s, write g h I = Some s -> exists g' h', parse s = Some (g', h') /\ geq_sel g' g /\ geq_sel h' h) /\
  exists s, its_to_rsmi write (its_construct ex_G ex_H) = Some s.
Proof.
  split.
  - intros g h I s [= <-]. exists g, h. repeat split; reflexivity.
  - eexists. reflexivity.
Qed.
