(** C06 — the per-component embedding lists of the component-aware search are determined by the
    trace: the list collected for one pattern component is the concatenation, over the VF2 calls of
    that component, of the pulled prefix of each enumeration, tagged with the host-component index. *)
From Coq Require Import List NArith Bool Arith Lia.
From SK Require Import lib.LGraph lib.Mono lib.Reach model.C06_Model model.C06_Attrs model.C06_Trace lib.C06_TraceSpec proof.C06_Trace proof.C06_TraceEx.
Import ListNotations.

Lemma cc_inner_pulled cap thr i : forall it maps n maps' n',
  cc_inner cap thr i it maps n = Some (maps', n') ->
  n' = loop_n cap thr it n /\
  maps' = rev (map (pair i) (firstn (N.to_nat (n' - n)) it)) ++ maps.
Proof.
  induction it as [|m it IH]; intros maps n maps' n'; cbn [cc_inner loop_n].
  - intros [= <- <-]. rewrite N.sub_diag. split; reflexivity.
  - destruct (capped cap (N.succ n)) eqn:Ec.
    + intros [= <- <-]. split; [reflexivity|].
      replace (N.to_nat (N.succ n - n)) with 1%nat by lia. reflexivity.
    + destruct (thr <? N.succ n)%N eqn:Et; [discriminate|].
      intros Hs. destruct (IH _ _ _ _ Hs) as [-> ->]. split; [reflexivity|].
      pose proof (loop_n_ge cap thr it (N.succ n)) as Hge.
      replace (N.to_nat (loop_n cap thr it (N.succ n) - n))
        with (S (N.to_nat (loop_n cap thr it (N.succ n) - N.succ n))) by lia.
      cbn [firstn map rev]. rewrite <- app_assoc. reflexivity.
Qed.

Lemma cc_inner_some_bound cap thr i : forall it maps n maps' n',
  cc_inner cap thr i it maps n = Some (maps', n') -> (n <= thr)%N -> capped cap n' = true \/ (n' <= thr)%N.
Proof.
  induction it as [|m it IH]; intros maps n maps' n'; cbn [cc_inner].
  - intros [= <- <-] Hn. right. exact Hn.
  - destruct (capped cap (N.succ n)) eqn:Ec.
    + intros [= <- <-] _. left. exact Ec.
    + destruct (N.ltb_spec thr (N.succ n)) as [Ht|Ht]; [discriminate|].
      intros Hs _. exact (IH _ _ _ _ Hs Ht).
Qed.

Section WithOracle.
Variable enum : list N -> list N -> list mapping.

Lemma pulled_items_nil pc cands : pulled_items enum pc cands [] = [].
Proof. destruct cands as [|[i hc] r]; reflexivity. Qed.

Lemma cc_outer_from_calls cap thr pc : forall cands maps n out, (n <= thr)%N ->
  cc_outer enum cap thr pc cands maps n = Some out ->
  out = rev maps ++ pulled_items enum pc cands (cc_outer_calls enum cap thr pc cands n).
Proof.
  induction cands as [|[i hc] r IH]; intros maps n out Hn; cbn [cc_outer cc_outer_calls pulled_items].
  - intros [= <-]. rewrite app_nil_r. reflexivity.
  - destruct (cc_inner cap thr i (enum hc pc) maps n) as [[maps' n']|] eqn:Ei; [|discriminate].
    destruct (cc_inner_pulled cap thr i _ _ _ _ _ Ei) as [En' Em]. rewrite <- En'.
    destruct (cc_inner_some_bound cap thr i _ _ _ _ _ Ei Hn) as [Hc|Hb].
    + rewrite Hc. cbn [orb]. intros [= <-]. rewrite pulled_items_nil.
      rewrite app_nil_r, Em, rev_app_distr, rev_involutive. reflexivity.
    + destruct (capped cap n') eqn:Ec; cbn [orb].
      * intros [= <-]. rewrite pulled_items_nil. rewrite app_nil_r, Em, rev_app_distr, rev_involutive. reflexivity.
      * intros Hs. assert (Et : (thr <? n')%N = false) by (apply N.ltb_ge; exact Hb).
        rewrite Et. rewrite (IH _ _ _ Hb Hs), Em, rev_app_distr, rev_involutive, <- app_assoc. reflexivity.
Qed.

(** the list collected for one pattern component ([per_cc[j]] of the code) from the trace of its calls *)
Theorem per_cc_from_calls cap thr pc cands maps :
  cc_outer enum cap thr pc cands [] 0%N = Some maps ->
  maps = pulled_items enum pc cands (cc_outer_calls enum cap thr pc cands 0%N).
Proof. intros Hs. exact (cc_outer_from_calls cap thr pc cands [] 0%N maps (N.le_0_l thr) Hs). Qed.
End WithOracle.

(** non-vacuity: the host of proof/C06_TraceEx.v has two matches in its component {1,2,3} (index 0) *)
Example ex_per_cc_from_calls :
  cc_outer E0 0 5000 [10; 11]%N [(0, [1; 2; 3]%N)] [] 0%N = Some [(0, [(11, 1); (10, 2)]%N); (0, [(11, 3); (10, 2)]%N)] /\
  pulled_items E0 [10; 11]%N [(0, [1; 2; 3]%N)] (cc_outer_calls E0 0 5000 [10; 11]%N [(0, [1; 2; 3]%N)] 0%N)
  = [(0, [(11, 1); (10, 2)]%N); (0, [(11, 3); (10, 2)]%N)].
Proof. vm_compute. split; reflexivity. Qed.
