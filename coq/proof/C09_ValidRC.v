(** C09 — the validator's RC method accepts every renumbering as the parser delivers it: node ids renamed,
    atoms listed in any order, atom_map attributes rewritten.  (The atom_map copied into the ITS / centre nodes is
    not compared by node_match; get_rc itself never reads it.) *)
From Coq Require Import List NArith ZArith Bool Arith Lia Permutation.
From SK Require Import lib.LGraph lib.C01_GraphLemmas model.C01_Model model.C02_Model model.C09_Model
  proof.C01_Proof proof.C02_Proof proof.C09_Lists proof.C09_Valid proof.C09_Canon proof.C09_Equiv proof.C09_Main.
Import ListNotations.

Definition Emap (g : its) : its := LG (ern (gnodes g)) (gedges g).
Lemma er_rc_attr a : er (rc_attr a) = IN (i_el a) (i_ch a) 0 None (i_G a) (i_H a).
Proof. reflexivity. Qed.

Section RcExt.
Variables g g' : its.
Hypothesis HE : amap_eq g g'.

Lemma is_h_ext u : is_h g u = is_h g' u.
Proof.
  destruct HE as (_ & HL). specialize (HL u). unfold is_h.
  destruct (label g u) as [a|], (label g' u) as [a'|]; simpl in HL; try discriminate; [|reflexivity].
  inversion HL. congruence.
Qed.
Lemma is_hh_ext u v : is_hh g u v = is_hh g' u v.
Proof. unfold is_hh. rewrite !is_h_ext. reflexivity. Qed.

Lemma ensure_ext n ns ns' : ern ns = ern ns' -> ern (ensure_node g n ns) = ern (ensure_node g' n ns').
Proof.
  intros En. unfold ensure_node, has_key.
  assert (Ek : option_map er (assoc n ns) = option_map er (assoc n ns')) by (rewrite <- !assoc_ern, En; reflexivity).
  destruct (assoc n ns) as [x|], (assoc n ns') as [x'|]; simpl in Ek; try discriminate; [exact En|].
  destruct HE as (_ & HL). specialize (HL n).
  destruct (label g n) as [a|], (label g' n) as [a'|]; simpl in HL; try discriminate; [|exact En].
  unfold ern in *. rewrite !map_app, En. simpl. f_equal. f_equal. f_equal. rewrite !er_rc_attr. inversion HL. congruence.
Qed.

Definition est (st : rc_state) : rc_state := (ern (fst st), snd st).
Lemma ensure2_ext u v (h : list (N * N * iedge) -> list (N * N * iedge)) (st st' : rc_state) : est st = est st' ->
  est (ensure_node g v (ensure_node g u (fst st)), h (snd st)) = est (ensure_node g' v (ensure_node g' u (fst st')), h (snd st')).
Proof.
  intros Es. assert (E1 : ern (fst st) = ern (fst st')) by (apply (f_equal fst) in Es; exact Es).
  assert (E2 : snd st = snd st') by (apply (f_equal snd) in Es; exact Es).
  unfold est. simpl. rewrite E2. f_equal. apply ensure_ext. apply ensure_ext. exact E1.
Qed.
Lemma step_changed_ext st st' e : est st = est st' -> est (step_changed g st e) = est (step_changed g' st' e).
Proof. intros Es. destruct e as [[u v] x]. unfold step_changed. destruct (changed x); [apply (ensure2_ext u v (fun l => l ++ [(u, v, x)]))|]; exact Es. Qed.
Lemma step_hh_ext st st' e : est st = est st' -> est (step_hh g st e) = est (step_hh g' st' e).
Proof.
  intros Es. destruct e as [[u v] x]. unfold step_hh. rewrite is_hh_ext. destruct (is_hh g' u v); [|exact Es].
  apply (ensure2_ext u v (fun l => match find_edge u v l with Some _ => l | None => l ++ [(u, v, x)] end)). exact Es.
Qed.
Lemma fold_ext (s1 : rc_state -> N * N * iedge -> rc_state) s2 L :
  (forall st st' e, est st = est st' -> est (s1 st e) = est (s2 st' e)) ->
  forall st st', est st = est st' -> est (fold_left s1 L st) = est (fold_left s2 L st').
Proof. intros Hs. induction L as [|e L IH]; intros st st' Es; simpl; [exact Es|]. apply IH. apply Hs. exact Es. Qed.

Theorem rc_amap_ext : Emap (get_rc g) = Emap (get_rc g').
Proof.
  unfold get_rc. cbv zeta. destruct HE as (Eg & _). rewrite <- Eg.
  assert (E : est (fold_left (step_hh g) (gedges g) (fold_left (step_changed g) (gedges g) ([], []))) =
              est (fold_left (step_hh g') (gedges g) (fold_left (step_changed g') (gedges g) ([], [])))).
  { apply fold_ext; [apply step_hh_ext|]. apply fold_ext; [apply step_changed_ext|]. reflexivity. }
  pose proof (f_equal fst E) as E1. pose proof (f_equal snd E) as E2. unfold est in E1, E2. simpl in E1, E2.
  unfold Emap. simpl. f_equal; assumption.
Qed.
End RcExt.

(** isomorphism does not look at the atom_map *)
Lemma lbl_Emap g n : lbl (Emap g) n = er (lbl g n).
Proof. unfold lbl, label, Emap. simpl. rewrite assoc_ern. destruct (assoc n (gnodes g)); reflexivity. Qed.
Lemma Emap_same g g' : Emap g = Emap g' -> its_same g g'.
Proof.
  intros E. assert (Ee : gedges g = gedges g') by (apply (f_equal (fun g : its => gedges g)) in E; exact E).
  split; [|split; [rewrite Ee; reflexivity|split; [|intros u v; unfold adj; rewrite Ee; reflexivity]]].
  - apply (f_equal (fun g : its => node_ids g)) in E. unfold node_ids, Emap, ern in E. simpl in E. rewrite !map_map in E.
    change (node_ids g = node_ids g') in E. rewrite E. apply Permutation_refl.
  - intros n x. change (node_match (er (lbl g n)) x = node_match (er (lbl g' n)) x /\ node_match x (er (lbl g n)) = node_match x (er (lbl g' n))).
    rewrite <- !lbl_Emap, E. auto.
Qed.

(** RC method: every renumbering, as parsed from the renumbered string, is accepted *)
Theorem validator_renumbering_rc (f : N -> N) (G H G' H' : mgraph) : (forall a b, f a = f b -> a = b) -> wf G -> wf H ->
  relabelled_by f G G' -> relabelled_by f H H' -> smiles_check_rc (set_amap G') (set_amap H') G H = true.
Proof.
  intros Hinj WG WH RG RH. apply (validator_exact (set_amap G') (set_amap H') G H WG WH).
  (* the centre of the parsed pair and the centre of the renamed pair differ in atom_map only *)
  assert (E : Emap (get_rc (its_construct (relabel f G) (relabel f H))) = Emap (get_rc (its_construct (set_amap G') (set_amap H')))).
  { symmetry. apply rc_amap_ext. apply (its_amap_eq f); auto. }
  apply (its_isomorphic_same _ _ _ _ (Emap_same _ _ E) (its_same_refl _)).
  rewrite (construct_equivariant f Hinj), (rc_equivariant f Hinj). apply relabel_isomorphic. exact Hinj.
Qed.

(** non-vacuity: renumbered, re-ordered, atom_map rewritten *)
Definition ex_G' : mgraph :=
  LG [(4%N, GN 82%N false 1 (-1) None 4); (5%N, GN 70%N false 3 0 None 5); (6%N, GN 17013%N false 0 0 None 6)] [(5%N, 6%N, 2%Z)].
Definition ex_H' : mgraph :=
  LG [(6%N, GN 17013%N false 0 (-1) None 6); (5%N, GN 70%N false 3 0 None 5); (4%N, GN 82%N false 1 0 None 4)] [(5%N, 4%N, 2%Z)].
Example ex_rc_renumbered : smiles_check_rc ex_G' ex_H' ex_G ex_H = true /\ smiles_check_its ex_G' ex_H' ex_G ex_H = true.
Proof. vm_compute. auto. Qed.
