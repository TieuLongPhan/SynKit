(** C01 — the RWMol content GraphToMol hands to RDKit stands for as many hydrogens as the graph it was built from; with
    theorem 44: as many as the decomposed side of the ITS *)
From Coq Require Import List NArith ZArith Bool.
From SK Require Import lib.LGraph lib.C01_GraphLemmas model.C01_Model model.C02_Model model.C01_String model.C01_HBal
  proof.C01_Proof proof.C01_StringProof proof.C01_StringPipe proof.C01_HBalProof proof.C01_HBalEH.
Import ListNotations.
Local Open Scope Z_scope.

Definition w_total (w : wmol) : Z := sumZ (fun a => if N.eqb (w_el a) EL_H then 1 else w_hs a) (fst w).

Lemma sumZ_map {X Y} (f : Y -> Z) (h : X -> Y) l : sumZ f (map h l) = sumZ (fun x => f (h x)) l.
Proof. induction l as [|a l IH]; [reflexivity|]. cbn [map]. rewrite !sumZ_cons, IH. reflexivity. Qed.

Theorem wmol_total (g : mgraph) w : wf g -> graph_to_wmol g = Some w -> w_total w = h_total g.
Proof.
  intros W E. destruct (graph_to_wmol_spec g) as [_ Spec]. destruct (Spec w E) as (A & _).
  unfold w_total, h_total. rewrite A, sumZ_map. unfold node_ids.
  rewrite <- (sum_over_assoc (fun a : gnode => if N.eqb (w_el (watom_of a)) EL_H then 1 else w_hs (watom_of a)) (gnodes g) (proj1 W)).
  apply sumZ_ext_in. intros n _. unfold h_weight, label. destruct (assoc n (gnodes g)) as [a|]; reflexivity.
Qed.

Corollary its_to_wmols_total (I : its) wr wp : wf I -> its_to_wmols I = Some (wr, wp) ->
  (one_parent (fst (its_decompose I)) -> w_total wr = h_total (fst (its_decompose I))) /\
  (one_parent (snd (its_decompose I)) -> w_total wp = h_total (snd (its_decompose I))).
Proof.
  intros W E. unfold its_to_wmols in E.
  destruct (graph_to_wmol (fst (its_to_graphs I))) as [a|] eqn:Ea; [|discriminate].
  destruct (graph_to_wmol (snd (its_to_graphs I))) as [b|] eqn:Eb; [|discriminate]. inversion E; subst a b.
  destruct (its_to_graphs_balance I W) as [Bg Bh].
  assert (forall (X : mgraph) hl, wf X -> wf (smi_graph X hl)) as SW
    by (intros X hl WX; destruct hl; [exact WX|apply C01_StringPipeH.ih_wf; exact WX]).
  split; intros OP.
  - rewrite <- (Bg OP). apply wmol_total; [|exact Ea]. unfold its_to_graphs. cbn [fst]. apply SW. apply dec_wf. exact W.
  - rewrite <- (Bh OP). apply wmol_total; [|exact Eb]. unfold its_to_graphs. cbn [snd]. apply SW. apply dec_wf. exact W.
Qed.
