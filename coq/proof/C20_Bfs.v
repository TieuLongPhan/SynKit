(** C20 — the bounded breadth-first search of [is_realizable], at the level of marking tuples:
    soundness (a returned sequence is a firing sequence from the start tuple to the target tuple),
    completeness within the bounds, and sufficiency of the fuel. *)
From Coq Require Import ZArith List Bool Lia.
Import ListNotations.
From SK Require Import model.C20_Model.
Local Open Scope nat_scope.

Lemma tuple_eqb_spec a : forall b, tuple_eqb a b = true <-> a = b.
Proof.
  induction a as [|x a IH]; intros [|y b]; simpl; split; try congruence; try discriminate.
  - intros H. apply andb_true_iff in H as [H1 H2]. apply Z.eqb_eq in H1. apply IH in H2. congruence.
  - intros H. inversion H; subst. rewrite Z.eqb_refl. simpl. apply IH. reflexivity.
Qed.

Lemma tmem_spec t vs : tmem t vs = true <-> In t vs.
Proof.
  unfold tmem. rewrite existsb_exists. split.
  - intros [y [H1 H2]]. apply tuple_eqb_spec in H2. now subst.
  - intros H. exists t. split; auto. now apply tuple_eqb_spec.
Qed.

Section BFS.
Variable net : petri.
Variables start target : tuple.
Variables max_states max_depth : N.

(** one firing at the level of tuples, exactly as the loop body computes it *)
Definition tstep (t : transition) (mt : tuple) : option tuple :=
  if enabled_t t (combine (pn_places net) mt)
  then Some (marking_to_tuple net (fire_t t (combine (pn_places net) mt)))
  else None.

Lemma tstep_Some t mt m1 :
  tstep t mt = Some m1 <->
  enabled_t t (combine (pn_places net) mt) = true /\
  m1 = marking_to_tuple net (fire_t t (combine (pn_places net) mt)).
Proof.
  unfold tstep. destruct (enabled_t t _); split; try discriminate.
  - intros H. injection H as <-. auto.
  - intros [_ ->]. reflexivity.
  - intros [H _]. discriminate.
Qed.

Inductive path : tuple -> list N -> tuple -> Prop :=
| path_nil m : path m [] m
| path_cons m t m1 s m' :
    In t (pn_trans net) -> tstep t m = Some m1 -> path m1 s m' -> path m (t_id t :: s) m'.

Lemma path_inv m s m' : path m s m' ->
  match s with
  | [] => m' = m
  | j :: s' => exists t m1, j = t_id t /\ In t (pn_trans net) /\ tstep t m = Some m1 /\ path m1 s' m'
  end.
Proof. destruct 1; eauto 6. Qed.

Lemma path_tuple m s m' : path m s m' ->
  (exists d, m = marking_to_tuple net d) -> exists d, m' = marking_to_tuple net d.
Proof.
  induction 1 as [|m t m1 s m' Ht Hs Hp IH]; [auto|]. intros _. apply IH.
  apply tstep_Some in Hs as [_ ->]. eauto.
Qed.

Lemma path_snoc m s m1 t m2 :
  path m s m1 -> In t (pn_trans net) -> tstep t m1 = Some m2 -> path m (s ++ [t_id t]) m2.
Proof.
  induction 1; intros Ht Hs; simpl.
  - econstructor; eauto. constructor.
  - econstructor; eauto.
Qed.

Lemma expand_sound ts : forall mt sq visited news nen nfire,
  incl ts (pn_trans net) -> path start sq mt ->
  (forall m s, In (m, s) news -> path start s m) ->
  match expand net ts (combine (pn_places net) mt) sq target visited news nen nfire with
  | SFound s _ _ => path start s target
  | SCont _ news' _ _ => forall m s, In (m, s) news' -> path start s m
  end.
Proof.
  induction ts as [|t ts IH]; intros mt sq visited news nen nfire Hincl Hp Hnews; simpl; auto.
  assert (Ht : In t (pn_trans net)) by (apply Hincl; simpl; auto).
  assert (Hincl' : incl ts (pn_trans net)) by (intros x Hx; apply Hincl; simpl; auto).
  destruct (enabled_t t (combine (pn_places net) mt)) eqn:En; [|apply IH; auto].
  assert (Hstep : tstep t mt = Some (marking_to_tuple net (fire_t t (combine (pn_places net) mt))))
    by (apply tstep_Some; auto).
  destruct (tuple_eqb _ target) eqn:Et.
  - apply tuple_eqb_spec in Et. rewrite <- Et. eapply path_snoc; eauto.
  - destruct (tmem _ visited); apply IH; auto.
    intros m s Hin. apply in_app_iff in Hin as [Hin|[Hin|[]]]; auto.
    inversion Hin; subst. eapply path_snoc; eauto.
Qed.

Lemma bfs_sound fuel : forall q visited states nen nfire s,
  (forall m sq, In (m, sq) q -> path start sq m) ->
  bo_verdict (bfs fuel net target max_states max_depth q visited states nen nfire) = Found s ->
  path start s target.
Proof.
  induction fuel as [|fuel IH]; intros q visited states nen nfire s Hq; simpl; [discriminate|].
  destruct q as [|[mt sq] q']; simpl; [discriminate|].
  destruct (max_states <? states + 1)%N; simpl; [discriminate|].
  assert (Hq' : forall m sq0, In (m, sq0) q' -> path start sq0 m) by (intros; apply Hq; simpl; auto).
  destruct (max_depth <? N.of_nat (length sq))%N; [apply IH; auto|].
  pose proof (expand_sound (pn_trans net) mt sq visited [] nen nfire (incl_refl _)
                (Hq mt sq (or_introl eq_refl))) as He.
  destruct (expand net (pn_trans net) (combine (pn_places net) mt) sq target visited [] nen nfire)
    as [s' ne nf|v' news' ne nf]; simpl.
  - intros H. inversion H; subst. apply He. simpl; tauto.
  - apply IH. intros m sq0 Hin. apply in_app_iff in Hin as [Hin|Hin]; auto.
    apply He; auto. simpl; tauto.
Qed.

Lemma bfs_fuel fuel : forall q visited states nen nfire,
  (N.to_nat states <= N.to_nat max_states) ->
  fuel + N.to_nat states = S (N.to_nat max_states) ->
  bo_verdict (bfs fuel net target max_states max_depth q visited states nen nfire) <> OutOfFuel.
Proof.
  induction fuel as [|fuel IH]; intros q visited states nen nfire Hle Hf; simpl; [lia|].
  destruct q as [|[mt sq] q']; simpl; [discriminate|].
  destruct (max_states <? states + 1)%N eqn:E; simpl; [discriminate|].
  apply N.ltb_ge in E.
  destruct (max_depth <? N.of_nat (length sq))%N; [apply IH; lia|].
  destruct (expand net (pn_trans net) (combine (pn_places net) mt) sq target visited [] nen nfire);
    simpl; [discriminate|]. apply IH; lia.
Qed.

Definition handled (v : list tuple) (mt : tuple) (ts : list transition) : Prop :=
  forall t m1, In t ts -> tstep t mt = Some m1 -> m1 <> target /\ In m1 v.

Lemma handled_cons v mt t ts :
  (forall m1, tstep t mt = Some m1 -> m1 <> target /\ In m1 v) -> handled v mt ts -> handled v mt (t :: ts).
Proof. intros Ht Hts t0 m1 [<-|H0] Hs; [exact (Ht m1 Hs)|exact (Hts t0 m1 H0 Hs)]. Qed.

(** a pass of the inner loop that does not find the target: the new tuples [added] are appended to [news] and pushed
    onto [visited] one by one, after which every enabled transition leads into the visited list *)
Lemma expand_complete ts : forall mt sq visited news nen nfire v' news' ne nf,
  expand net ts (combine (pn_places net) mt) sq target visited news nen nfire = SCont v' news' ne nf ->
  NoDup visited -> ~ In target visited ->
  exists added, news' = news ++ added /\ v' = rev (map fst added) ++ visited /\
    NoDup v' /\ ~ In target v' /\ handled v' mt ts.
Proof.
  induction ts as [|t ts IH]; intros mt sq visited news nen nfire v' news' ne nf; simpl.
  - intros H Hnd Hnt. injection H as <- <- _ _. exists []. rewrite app_nil_r.
    split; [reflexivity|]. split; [reflexivity|]. split; [exact Hnd|]. split; [exact Hnt|]. intros t m1 [].
  - destruct (enabled_t t (combine (pn_places net) mt)) eqn:En.
    + set (new := marking_to_tuple net (fire_t t (combine (pn_places net) mt))).
      assert (Hstep : tstep t mt = Some new) by (apply tstep_Some; auto).
      destruct (tuple_eqb new target) eqn:Et; [discriminate|].
      assert (Hnew : new <> target) by (intros E; apply tuple_eqb_spec in E; congruence).
      destruct (tmem new visited) eqn:Em; intros H Hnd Hnt.
      * apply tmem_spec in Em.
        destruct (IH _ _ _ _ _ _ _ _ _ _ H Hnd Hnt) as (added & E1 & E2 & P1 & P2 & P3).
        exists added. repeat (split; [assumption|]). apply handled_cons; [|exact P3].
        intros m1 Hs. rewrite Hstep in Hs. injection Hs as <-. split; [exact Hnew|].
        rewrite E2. apply in_app_iff. auto.
      * assert (Hni : ~ In new visited) by (intros Hi; apply tmem_spec in Hi; congruence).
        destruct (IH _ _ _ _ _ _ _ _ _ _ H) as (added & E1 & E2 & P1 & P2 & P3).
        { constructor; auto. }
        { simpl. intros [E|E]; auto. }
        exists ((new, sq ++ [t_id t]) :: added).
        split; [rewrite E1, <- app_assoc; reflexivity|].
        split; [rewrite E2; simpl; rewrite <- app_assoc; reflexivity|].
        repeat (split; [assumption|]). apply handled_cons; [|exact P3].
        intros m1 Hs. rewrite Hstep in Hs. injection Hs as <-. split; [exact Hnew|].
        rewrite E2. apply in_app_iff. simpl. auto.
    + intros H Hnd Hnt.
      destruct (IH _ _ _ _ _ _ _ _ _ _ H Hnd Hnt) as (added & E1 & E2 & P1 & P2 & P3).
      exists added. repeat (split; [assumption|]). apply handled_cons; [|exact P3].
      intros m1 Hs. apply tstep_Some in Hs as [Hs _]. congruence.
Qed.

Definition saturated (v : list tuple) (m : tuple) : Prop := handled v m (pn_trans net).

Lemma saturated_mono v v' m : incl v v' -> saturated v m -> saturated v' m.
Proof. intros Hi Hc t m1 Ht Hs. destruct (Hc t m1 Ht Hs). auto. Qed.

Lemma saturated_all_reach v :
  (forall m, In m v -> saturated v m) ->
  forall m s m', path m s m' -> In m v -> In m' v.
Proof.
  intros Hc m s m' Hp. induction Hp; intros Hin; auto.
  apply IHHp. destruct (Hc m Hin t m1 H H0). auto.
Qed.

Section Complete.
Hypothesis Hne : start <> target.
Hypothesis Hgoal : exists s, path start s target.
Variable R : list tuple.
Hypothesis HR : forall s m, path start s m -> In m R.
Hypothesis HRlen : (N.of_nat (length R) <= max_states)%N.
Hypothesis Hdepth : forall s m, path start s m -> (N.of_nat (length s) <= max_depth)%N.

Lemma bfs_complete_inv fuel : forall q visited states nen nfire,
  (forall m sq, In (m, sq) q -> path start sq m) ->
  (forall m, In m visited -> exists s, path start s m) ->
  NoDup visited -> ~ In target visited -> In start visited ->
  length visited = N.to_nat states + length q ->
  (forall m, In m visited -> (exists s, In (m, s) q) \/ saturated visited m) ->
  fuel + N.to_nat states = S (N.to_nat max_states) ->
  exists s, bo_verdict (bfs fuel net target max_states max_depth q visited states nen nfire) = Found s.
Proof.
  (* the visited tuples are distinct and reachable, so there are at most |R| of them: the fuel cannot be exhausted
     and the state bound is not hit *)
  induction fuel as [|fuel IH]; intros q visited states nen nfire I1 I2 Hnd Hnt Hst Hlen I5 Hfuel;
    assert (HlenR : length visited <= length R)
      by (apply NoDup_incl_length; auto; intros m Hm; destruct (I2 m Hm) as [s Hs]; exact (HR s m Hs)).
  - lia.
  - destruct q as [|[mt sq] q']; simpl.
    + exfalso. destruct Hgoal as [s Hs]. apply Hnt.
      apply (saturated_all_reach visited) with (m := start) (s := s); auto.
      intros m Hm. destruct (I5 m Hm) as [[s' []]|Hc]; auto.
    + simpl in Hlen.
      destruct (max_states <? states + 1)%N eqn:E; [apply N.ltb_lt in E; lia|].
      pose proof (I1 mt sq (or_introl eq_refl)) as Hp.
      destruct (max_depth <? N.of_nat (length sq))%N eqn:Ed.
      { apply N.ltb_lt in Ed. specialize (Hdepth _ _ Hp). lia. }
      pose proof (expand_sound (pn_trans net) mt sq visited [] nen nfire (incl_refl _) Hp) as He.
      destruct (expand net (pn_trans net) (combine (pn_places net) mt) sq target visited [] nen nfire)
        as [s' ne nf|v' news' ne nf] eqn:Ex; simpl.
      * eauto.
      * assert (He' : forall m s, In (m, s) news' -> path start s m) by (apply He; simpl; tauto).
        destruct (expand_complete _ _ _ _ _ _ _ _ _ _ _ Ex Hnd Hnt) as (added & E1 & E2 & P1 & P2 & P3).
        simpl in E1. subst news'.
        assert (Hadd : forall m, In m (rev (map fst added)) -> exists s, In (m, s) added).
        { intros m Hm. apply in_rev, in_map_iff in Hm as [[m' s] [<- Hm]]. eauto. }
        apply IH; auto.
        -- intros m sq0 Hin. apply in_app_iff in Hin as [Hin|Hin]; auto. apply I1. simpl; auto.
        -- intros m Hm. rewrite E2 in Hm. apply in_app_iff in Hm as [Hm|Hm]; auto.
           destruct (Hadd m Hm) as [s Hs]. eauto.
        -- rewrite E2. apply in_app_iff. auto.
        -- rewrite E2, !app_length, rev_length, map_length. lia.
        -- intros m Hm. rewrite E2 in Hm. apply in_app_iff in Hm as [Hm|Hm].
           ++ destruct (Hadd m Hm) as [s Hs]. left. exists s. apply in_app_iff. auto.
           ++ destruct (I5 m Hm) as [[s [Hs|Hs]]|Hc].
              ** inversion Hs; subst. right. exact P3.
              ** left. exists s. apply in_app_iff. auto.
              ** right. apply (saturated_mono visited); auto. rewrite E2. apply incl_appr, incl_refl.
        -- lia.
Qed.

Lemma bfs_complete :
  exists s, bo_verdict (bfs (S (N.to_nat max_states)) net target max_states max_depth
                            [(start, [])] [start] 0 0 0) = Found s.
Proof.
  apply bfs_complete_inv; simpl; auto.
  - intros m sq [H|[]]. inversion H; subst. constructor.
  - intros m [<-|[]]. exists []. constructor.
  - constructor; [simpl; tauto|constructor].
  - intros [H|[]]. auto.
  - intros m [<-|[]]. left. exists []. simpl; auto.
Qed.
End Complete.
End BFS.
