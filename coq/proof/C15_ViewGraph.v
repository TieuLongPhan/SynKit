(** C15 — the cached view IS the export of the current network.

    model/C15_View.v represents a cached view by the snapshot of the store it was built from and states
    currency through [vproj] ("what the export reads").  Here the snapshot is pushed through the export
    functions themselves — the Gallina models of hypergraph_to_bipartite / hypergraph_to_species_graph of
    C16 (model/C16_Model.v: [backend_bipartite], [hypergraph_to_species_graph]), exactly what
    _CRNGraphBackend._build_graph calls — so the statement is about the graph object handed out. *)
From stdpp Require Import gmap strings sets.
From SK Require Import lib.Tok model.C15_Model model.C15_Ext model.C15_View proof.C15_View model.C16_Model model.C15_ViewObs.
Local Open Scope string_scope.

(** the exports never read the per-rule id counters: stores with the same content export to the same graph *)
Lemma same_content_bipartite fl s s' : same_content s s' → hypergraph_to_bipartite fl s' = hypergraph_to_bipartite fl s.
Proof.
  destruct s as [sp ed od si so cn ml kp], s' as [sp' ed' od' si' so' cn' ml' kp'].
  intros (? & ? & ? & ? & ? & ? & ?). cbn in *. subst. reflexivity.
Qed.
Lemma same_content_species_graph b s s' : same_content s s' → hypergraph_to_species_graph b s' = hypergraph_to_species_graph b s.
Proof.
  destruct s as [sp ed od si so cn ml kp], s' as [sp' ed' od' si' so' cn' ml' kp'].
  intros (? & ? & ? & ? & ? & ? & ?). cbn in *. subst. reflexivity.
Qed.
Lemma same_content_view_graph o s s' : same_content s s' → view_graph o s' = view_graph o s.
Proof.
  intros Hs. unfold view_graph, backend_bipartite. destruct (include_rule o).
  - by rewrite (same_content_bipartite _ s s' Hs).
  - by rewrite (same_content_species_graph _ s s' Hs).
Qed.

Lemma exports_ignore_counters (fl : bflags) (b : bool) (s s' : net) :
  species s' = species s → edges s' = edges s → order s' = order s → s_in s' = s_in s → s_out s' = s_out s →
  mol s' = mol s → kept s' = kept s →
  hypergraph_to_bipartite fl s' = hypergraph_to_bipartite fl s ∧
  hypergraph_to_species_graph b s' = hypergraph_to_species_graph b s.
Proof.
  intros H1 H2 H3 H4 H5 H6 H7. split.
  - apply same_content_bipartite. repeat split; assumption.
  - apply same_content_species_graph. repeat split; assumption.
Qed.

(** every world reachable through the methods of the store: the graph a backend hands out on access equals the graph
    exported from the network as it is now *)
Lemma view_graph_current (n k nb : nat) (ops : list op3) (b : nat) :
  Forall (λ o, match o with O2 (OSideSet _ _ _ _ _) | O2 (OSideIncr _ _ _ _ _) => False | _ => True end) ops →
  let w := fold_left (λ w o, (step3 w o).1.1) ops (init_world3 n k nb) in
  let be := getb (backends w) b in
  view_graph (b_opts be) (access w b).2 = view_graph (b_opts be) (getn (nets (w2 w)) (b_net be)).
Proof.
  intros Hs w be. apply same_content_view_graph, access_current. apply run3_VInv; [exact Hs|apply VInv_init].
Qed.

(** the cache works: right after an access of a (really existing) backend a second access hands out the SAME graph without
    rebuilding, and changes nothing; so does every later access until a store method is called on that network *)
Lemma access_cases w b be : backends w !! b = Some be →
  (∃ snap, b_cache be = Some (getv (vers w) (b_net be), snap) ∧ access w b = (w, false, snap)) ∨
  access w b = (W3 (w2 w) (vers w) (<[ b := BE (b_net be) (b_opts be)
                                             (Some (getv (vers w) (b_net be), getn (nets (w2 w)) (b_net be))) ]> (backends w)),
                true, getn (nets (w2 w)) (b_net be)).
Proof.
  intros Hbe. unfold access.
  assert (getb (backends w) b = be) as -> by (unfold getb; by rewrite nth_lookup, Hbe).
  destruct (b_cache be) as [[v snap]|] eqn:Hc; [|by right].
  destruct (decide (v = getv (vers w) (b_net be))) as [->|Hne]; [left; eauto|by right].
Qed.

Lemma access_cached w b : (b < length (backends w))%nat →
  (access (access w b).1.1 b).1.2 = false ∧ (access (access w b).1.1 b).2 = (access w b).2 ∧
  (access (access w b).1.1 b).1.1 = (access w b).1.1.
Proof.
  intros Hb. destruct (lookup_lt_is_Some_2 _ _ Hb) as [be Hbe].
  destruct (access_cases w b be Hbe) as [(snap & Hc & ->) | -> ]; cbn [fst snd].
  - destruct (access_cases w b be Hbe) as [(snap' & Hc' & ->)|Hq]; [cbn; split_and!; congruence|].
    exfalso. unfold access in Hq.
    assert (getb (backends w) b = be) as Hg by (unfold getb; by rewrite nth_lookup, Hbe).
    rewrite Hg, Hc, decide_True in Hq by done. congruence.
  - set (s := getn (nets (w2 w)) (b_net be)). set (cur := getv (vers w) (b_net be)).
    set (be1 := BE (b_net be) (b_opts be) (Some (cur, s))).
    set (w1 := W3 (w2 w) (vers w) (<[ b := be1 ]> (backends w))).
    assert (backends w1 !! b = Some be1) as Hb1 by (cbn; by apply list_lookup_insert).
    destruct (access_cases w1 b be1 Hb1) as [(snap' & Hc' & ->)|Hq].
    + cbn in Hc'. injection Hc' as <-. done.
    + exfalso. unfold access in Hq.
      assert (getb (backends w1) b = be1) as Hg by (unfold getb; by rewrite nth_lookup, Hb1).
      rewrite Hg in Hq. cbn [b_cache be1 b_net vers w1] in Hq. fold cur in Hq. rewrite decide_True in Hq by done. congruence.
Qed.

(** what the abstraction [vproj] leaves out is exactly what the exports do not read: equal projections, equal graphs
    (species graph and bipartite graph with coefficients) *)
Lemma vproj_bipartite (int_ : bool) s s' :
  vproj (VO true int_ true) s' = vproj (VO true int_ true) s →
  b_nodes (backend_bipartite int_ true s') = b_nodes (backend_bipartite int_ true s) ∧
  b_arcs (backend_bipartite int_ true s') = b_arcs (backend_bipartite int_ true s).
Proof.
  unfold vproj. cbn. intros [= Hsp Hed].
  assert (edges s' = edges s) as He.
  { apply map_eq. intros e. apply (f_equal (λ m, m !! e)) in Hed. rewrite !lookup_fmap in Hed.
    destruct (edges s' !! e) as [[r1 l1 p1]|], (edges s !! e) as [[r2 l2 p2]|]; cbn in Hed; congruence. }
  destruct s as [sp ed od si so cn ml kp], s' as [sp' ed' od' si' so' cn' ml' kp']. cbn in *. subst. done.
Qed.

(** non-vacuity: a species-graph view and a bipartite view of one network, both built, then a second reaction is added:
    on the next access both cached graphs are rebuilt and are the exports of the network *)
Definition exg_ops : list op3 :=
  [ O2 (OAddItems 0 [IPair "A" 1; IPair "B" 2] [ILabel "C"] "" None);
    OBackendNew 0 0 (VO false false true); OBackendNew 1 0 (VO true true true);
    OView 0; OView 1;
    O2 (OAddItems 0 [ILabel "C"] [IPair "D" 3] "q" None) ].
Definition exg_w : world3 := fold_left (λ w o, (step3 w o).1.1) exg_ops (init_world3 1 0 2).
Definition exg_sg : sgraph := hypergraph_to_species_graph false (access exg_w 0).2.
Definition exg_bg : bgraph := backend_bipartite true true (access exg_w 1).2.
Example ex_view_graph_nonvacuous :
  (access exg_w 0).1.2 = true ∧ (access exg_w 1).1.2 = true ∧         (* both caches are stale: rebuilt on access *)
  size (g_arcs exg_sg) = 3%nat ∧ size (b_nodes exg_bg) = 6%nat ∧ size (b_arcs exg_bg) = 5%nat ∧
  tsgraph exg_sg = tsgraph (hypergraph_to_species_graph false (getn (nets (w2 exg_w)) 0)) ∧
  tbgraph exg_bg = tbgraph (backend_bipartite true true (getn (nets (w2 exg_w)) 0)).
Proof. split_and!; by vm_compute. Qed.

(** the observed run is the run of model/C15_View.v: same worlds, same errors; a view answer = the answer of [step3]
    followed by the graph built from the cached snapshot *)
Lemma step3g_spec w o : (step3g w o).1 = (step3 w o).1 ∧
  match o with
  | OView b => (step3g w o).2 = L [(step3 w o).2; tview (view_graph (b_opts (getb (backends w) b)) (access w b).2)]
  | _ => (step3g w o).2 = (step3 w o).2
  end.
Proof. unfold step3g. destruct (step3 w o) as [[w' er] a]. by destruct o. Qed.

(** non-vacuity of [access_cached]: both caches of [exg_w] are stale; the first access rebuilds, the second is served from the cache *)
Example ex_view_cached :
  (length (backends exg_w) = 2)%nat ∧ (access exg_w 0).1.2 = true ∧ (access (access exg_w 0).1.1 0).1.2 = false ∧
  tsgraph (hypergraph_to_species_graph false (access (access exg_w 0).1.1 0).2) = tsgraph exg_sg.
Proof. split_and!; by vm_compute. Qed.

(** every store operation either counts itself ([bumps] says which network's `_version` moves) or leaves every export of every
    network unchanged — so a cached view whose version is current can only be the current export.  (The copy into a slot re-binds
    the slot to a new object, whose backends are re-created; the caller-side coefficient edits are the known finding.) *)
Lemma version_or_unchanged (w : world2) (o : op2) :
  view_safe (O2 o) → (∀ i j, o ≠ OBase (OCopy i j)) →
  bumps w o (step2 w o).1.1 (step2 w o).1.2 = None →
  ∀ (k : nat) (fl : bflags) (b : bool),
    hypergraph_to_bipartite fl (getn (nets (step2 w o).1.1) k) = hypergraph_to_bipartite fl (getn (nets w) k) ∧
    hypergraph_to_species_graph b (getn (nets (step2 w o).1.1) k) = hypergraph_to_species_graph b (getn (nets w) k).
Proof.
  intros Hs Hnc Hb k fl b. pose proof (unbumped_same w o Hs Hnc Hb k) as Hsame.
  split; [by apply same_content_bipartite|by apply same_content_species_graph].
Qed.
(** non-vacuity: on the network of [exg_w], a remove_rxn of a missing id and a query count nothing (and change nothing), while
    remove_species(x, prune_orphans=False) of a species that shares its reactions — no reaction dies — DOES count *)
Example ex_version_nonvacuous :
  bumps (w2 exg_w) (OBase (ORemoveRxn 0 "nope")) (step2 (w2 exg_w) (OBase (ORemoveRxn 0 "nope"))).1.1 (step2 (w2 exg_w) (OBase (ORemoveRxn 0 "nope"))).1.2 = None ∧
  bumps (w2 exg_w) (OBase (ORemoveSpecies 0 "B" false)) (step2 (w2 exg_w) (OBase (ORemoveSpecies 0 "B" false))).1.1
        (step2 (w2 exg_w) (OBase (ORemoveSpecies 0 "B" false))).1.2 = Some 0%nat ∧
  size (edges (getn (nets (step2 (w2 exg_w) (OBase (ORemoveSpecies 0 "B" false))).1.1) 0)) = size (edges (getn (nets (w2 exg_w)) 0)).
Proof. split_and!; by vm_compute. Qed.
