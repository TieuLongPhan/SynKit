(** C01 — the closed form of MolToGraph.transform for every flag combination (mol_to_graph_general, proof/C01_StringProof.v) on a
    molecule whose ids are distinct although one atom is unmapped *)
From Coq Require Import List NArith ZArith Bool Arith.
From SK Require Import lib.LGraph lib.C01_GraphLemmas model.C01_Model model.C02_Model model.C01_String model.C01_M2GIdx
  proof.C01_OptsProof proof.C01_Proof proof.C01_StringProof.
Import ListNotations.

Example C01_mol_to_graph_general_nonvacuous :
  let m := RM [RA 70%N false 3%Z 0%Z 5%N [82%N]; RA 82%N false 1%Z 0%Z 0%N [70%N]] [(0%nat, 1%nat, 2%Z)] in
  NoDup (map fst (gen_nodes false true m)) /\ simple (gen_bonds false true m) /\
  mol_to_graph false true m = Some (LG (gen_nodes false true m) (gen_bonds false true m)) /\
  map fst (gen_nodes false true m) = [5; 2]%N /\ gen_bonds false true m = [(5%N, 2%N, 2%Z)] /\
  gen_nodes true true m = mapped_nodes m.
Proof.
  cbv zeta. split; [apply nodupNb_spec; reflexivity|]. split; [apply simpleb_spec; reflexivity|].
  split; [reflexivity|]. split; [reflexivity|]. split; [reflexivity|apply gen_nodes_tt].
Qed.
