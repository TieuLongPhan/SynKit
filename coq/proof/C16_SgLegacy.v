(** C16 — the legacy species-graph format: without the per-reaction maps stoich_r_map / stoich_p_map the importer
    falls back to the per-arc values stoich_r / stoich_p (the minimum over the reactions of the arc).  The round trip then
    holds when that minimum loses nothing: the reactions that share a species pair agree on their coefficients
    for it ([coeffs_agree]).  ([ex_sdrop_maps_needed] in C16_SgDrop.v: 2A >> B and 3A >> 4B do not, and fail.) *)
From stdpp Require Import gmap strings sets pretty sorting.
From SK Require Import lib.Tok model.C15_Model proof.C15_Proof model.C16_Model proof.C16_Defs proof.C16_Common proof.C16_Sg
                       model.C16_Edit proof.C16_SgDrop.
Local Open Scope string_scope.
Local Open Scope list_scope.

(** all tuples (reaction, reactant, product) on one arc carry the same pair of coefficients *)
Definition tagree (l : list tup) : Prop :=
  ∀ t t', t ∈ l → t' ∈ l → t_u t = t_u t' → t_v t = t_v t' → t_c t = t_c t' ∧ t_d t = t_d t'.
(** the legacy values of an arc are the coefficients of every reaction on it *)
Definition LInv (done : list tup) (arcs : gmap (string * string) sarc) : Prop :=
  ∀ a t, arcs !! (t_u t, t_v t) = Some a → t ∈ done → sa_r a = Z.pos (t_c t) ∧ sa_p a = Z.pos (t_d t).

Lemma tagree_app_l l l' : tagree (l ++ l') → tagree l.
Proof. intros Hag t t' Ht Ht'. apply Hag; apply elem_of_app; by left. Qed.

Lemma step_LInv done G t :
  AInv done (g_arcs G) → LInv done (g_arcs G) → tagree (done ++ [t]) → LInv (done ++ [t]) (g_arcs (step_tuple G t)).
Proof.
  intros HA HL Hag a t0. unfold step_tuple, collapse_pair. cbn [g_arcs].
  destruct (decide ((t_u t0, t_v t0) = (t_u t, t_v t))) as [Heq|Hne].
  - rewrite Heq, lookup_insert. intros [= <-] Hin0. injection Heq as Hu Hv.
    destruct (Hag t0 t Hin0 (elem_of_snoc_r _ _) Hu Hv) as [-> ->].
    destruct (g_arcs G !! (t_u t, t_v t)) as [d|] eqn:E; cbn [sa_r sa_p]; [|done].
    (* the arc exists: some earlier tuple is on it, and agrees with [t] *)
    assert (∃ t1, t1 ∈ done ∧ t_u t1 = t_u t ∧ t_v t1 = t_v t) as (t1 & H1 & Hu1 & Hv1).
    { pose proof (ai_ne _ _ HA _ _ E) as Hne. apply set_choose_L in Hne as [e He].
      apply (ai_via _ _ HA _ _ _ e E) in He as (t1 & ? & _ & ? & ?). eauto. }
    destruct (HL d t1) as [Hr Hp]; [by rewrite Hu1, Hv1|done|].
    destruct (Hag t1 t) as [Hc Hd]; [by apply elem_of_snoc_l|apply elem_of_snoc_r|done|done|].
    rewrite Hr, Hp, Hc, Hd, !Z.min_id. done.
  - rewrite lookup_insert_ne by done. intros Ha Hin0. apply HL; [done|].
    apply elem_of_snoc in Hin0 as [?| ->]; done.
Qed.

Lemma export_LInv im H : tagree (sg_tuples H) → LInv (sg_tuples H) (g_arcs (hypergraph_to_species_graph im H)).
Proof.
  intros Hag. apply (export_inv_with LInv tagree); [apply tagree_app_l|by intros; apply step_LInv| |done].
  intros a t Ha. by apply lookup_empty_Some in Ha.
Qed.

(** in terms of the network: reactions that share a (reactant, product) pair agree on both coefficients *)
Definition coeffs_agree (H : net) : Prop :=
  ∀ e e' rx rx' u v c d c' d', edges H !! e = Some rx → edges H !! e' = Some rx' →
    r_lhs rx !! u = Some c → r_rhs rx !! v = Some d → r_lhs rx' !! u = Some c' → r_rhs rx' !! v = Some d' → c = c' ∧ d = d'.
Lemma coeffs_agree_tagree H : coeffs_agree H → tagree (sg_tuples H).
Proof.
  intros Hag t t' (rx & Hin & _ & Hu & Hv)%elem_of_sg_tuples (rx' & Hin' & _ & Hu' & Hv')%elem_of_sg_tuples Hue Hve.
  rewrite <-Hue in Hu'. rewrite <-Hve in Hv'.
  exact (Hag (t_e t) (t_e t') rx rx' (t_u t) (t_v t) (t_c t) (t_d t) (t_c t') (t_d t') Hin Hin' Hu Hv Hu' Hv').
Qed.

Lemma species_graph_roundtrip_legacy (pick : gset string → string) (default_rule : string) (include_mol mol_attr : bool)
    (d : sdrops) (H : net) :
  two_sided H → coeffs_agree H →
  (sd_rmap d = true → sd_leg_r d = false) → (sd_pmap d = true → sd_leg_p d = false) →
  (species_graph_to_hypergraph pick default_rule mol_attr (sdrop_attrs d (hypergraph_to_species_graph include_mol H))).2 = None ∧
  stoich_of <$> edges (species_graph_to_hypergraph pick default_rule mol_attr
                         (sdrop_attrs d (hypergraph_to_species_graph include_mol H))).1
    = stoich_of <$> edges H.
Proof.
  intros H2 Hag Hr Hp. destruct (export_inv include_mol H) as [HA HN].
  pose proof (export_LInv include_mol H (coeffs_agree_tagree H Hag)) as HL.
  apply species_graph_import_stoich; [done| |by apply sdrop_NInv]. apply sdrop_VAInv; [done|..].
  - intros Hd. split; [by apply Hr|]. intros a t Ha Ht. by destruct (HL a t Ha Ht).
  - intros Hd. split; [by apply Hp|]. intros a t Ha Ht. by destruct (HL a t Ha Ht).
Qed.

(** non-vacuity: two reactions share the arc A -> B with the SAME coefficients (and differ elsewhere); every map deleted *)
Definition exl_net : net :=
  mk_net [] [(None, "r", [("A", 2%Z)], [("B", 3%Z)]); (None, "q", [("A", 2%Z); ("C", 7%Z)], [("B", 3%Z)])] [].
Definition exl_drops : sdrops := SDrops true false false true true true false false.
Definition exl_back : net * option cerr :=
  species_graph_to_hypergraph pick_first "r" true (sdrop_attrs exl_drops (hypergraph_to_species_graph true exl_net)).
Example ex_legacy_nonvacuous :
  bool_decide (two_sided exl_net) = true ∧ size (edges exl_net) = 2%nat ∧
  size (g_arcs (hypergraph_to_species_graph true exl_net)) = 2%nat ∧
  exl_back.2 = None ∧ bool_decide (stoich_of <$> edges exl_back.1 = stoich_of <$> edges exl_net) = true.
Proof. split_and!; by vm_compute. Qed.
