(** C04 — the pruning premise discharged with C11's theorem: whatever the pruning by rule automorphisms keeps of a raw
    list that contains the identity, its_list built from it contains an ITS that decomposes to the reaction.
    Uses proof/C11_Main.v (prune_complete_fun).  The rule is handed to C11's model through node / edge codes
    [cn] / [ce] (the harness interns attribute values; here: any coding that determines both tuples / the bond label). *)
From Coq Require Import List NArith ZArith Bool Lia Permutation.
From SK Require Import lib.LGraph model.C11_Model proof.C11_Aut proof.C11_Dedup proof.C11_Main model.C03_Model model.C04_Model model.C04_Reactor
                       proof.C03_Proof proof.C03_Glue proof.C04_Glue proof.C04_Any proof.C04_Proof.
Import ListNotations.
Local Open Scope Z_scope.

Section Codes.
  Variable cn : inode -> N.
  Variable ce : iedge -> N.
  Local Notation tr_rule := (C04_Reactor.tr_rule cn ce).

  Lemma tr_rule_ids t : node_ids (tr_rule t) = node_ids t.
  Proof. unfold node_ids, tr_rule; simpl. rewrite map_map. reflexivity. Qed.
  Lemma tr_rule_label t n : lab_of n_full (tr_rule t) n = option_map cn (label t n).
  Proof.
    unfold lab_of, label, tr_rule; simpl. induction (gnodes t) as [|[k a] r IH]; simpl; [reflexivity|].
    destruct (N.eqb n k); [reflexivity|exact IH].
  Qed.
  Lemma tr_rule_adj t a b : adj_of e_full (tr_rule t) a b = option_map ce (LGraph.adj t a b).
  Proof.
    unfold adj_of, LGraph.adj, tr_rule; simpl. induction (gedges t) as [|[[u v] x] r IH]; simpl; [reflexivity|].
    destruct ((N.eqb u a && N.eqb v b) || (N.eqb u b && N.eqb v a)); [reflexivity|exact IH].
  Qed.

  (** an automorphism in C11's sense of the coded rule is a symmetry of the rule, with an inverse *)
  Definition inv_on (ns : list N) (s : N -> N) (v : N) : N :=
    match find (fun u => N.eqb (s u) v) ns with Some u => u | None => v end.

  (** the codes need to be faithful only on the atoms and bonds of the rule at hand *)
  Definition faithful (t : its) : Prop :=
    (forall n a n' b, In (n, a) (gnodes t) -> In (n', b) (gnodes t) -> cn a = cn b -> iG a = iG b /\ iH a = iH b) /\
    (forall u v x u' v' z, In (u, v, x) (gedges t) -> In (u', v', z) (gedges t) -> ce x = ce z -> x = z).

  Lemma aut_is_rule_aut (t : its) (s : N -> N) : faithful t -> wf_rcb t = true ->
    (forall u v x, In (u, v, x) (gedges t) -> In u (node_ids t) /\ In v (node_ids t)) ->
    is_automorphism n_full e_full (tr_rule t) s -> rule_aut t s (inv_on (node_ids t) s).
  Proof.
    intros [Hcn Hce] Hw Hcl (S1 & S2 & S3 & S4). rewrite tr_rule_ids in S1, S2, S3, S4.
    pose proof (wf_rc_nodup t Hw) as Hnd. set (ns := node_ids t) in *.
    assert (Hsurj : forall v, In v ns -> exists u, In u ns /\ s u = v).
    { intros v Hv. assert (Hincl : incl ns (map s ns)).
      { apply NoDup_length_incl.
        - apply NoDup_map_inj; [exact Hnd|]. intros a b Ia Ib E. exact (S2 a b Ia Ib E).
        - rewrite map_length. lia.
        - intros x Hx. apply in_map_iff in Hx. destruct Hx as (u & <- & Hu). auto. }
      specialize (Hincl v Hv). apply in_map_iff in Hincl. destruct Hincl as (u & E & Hu). eauto. }
    assert (Hinv : forall v, In v ns -> In (inv_on ns s v) ns /\ s (inv_on ns s v) = v).
    { intros v Hv. unfold inv_on. destruct (find (fun u => N.eqb (s u) v) ns) as [u|] eqn:F.
      - apply find_some in F. destruct F as [Hu E]. apply N.eqb_eq in E. auto.
      - exfalso. destruct (Hsurj v Hv) as (u & Hu & E). pose proof (find_none _ _ F u Hu) as Hn. simpl in Hn.
        rewrite E, N.eqb_refl in Hn. discriminate. }
    assert (Hedge : forall f, (forall u, In u ns -> In (f u) ns) ->
              (forall u v, In u ns -> In v ns -> option_map ce (LGraph.adj t (f u) (f v)) = option_map ce (LGraph.adj t u v)) ->
              forall u v x, In (u, v, x) (gedges t) -> LGraph.adj t (f u) (f v) = Some x).
    { intros f F1 F2 u v x I. destruct (Hcl u v x I) as [Iu Iv]. specialize (F2 u v Iu Iv).
      assert (Ea : LGraph.adj t u v = Some x).
      { unfold LGraph.adj. apply simple_in_find; [apply simpleP_of_b; exact (wf_rc_simple t Hw)|exact I]. }
      rewrite Ea in F2. destruct (LGraph.adj t (f u) (f v)) as [y|] eqn:Ey; [|discriminate]. simpl in F2. inversion F2 as [E].
      unfold LGraph.adj in Ey. apply find_edge_in in Ey. destruct Ey as (p & q & Iy & _).
      rewrite (Hce _ _ _ _ _ _ Iy I E). reflexivity. }
    constructor.
    - intros n In_. destruct (Hinv n In_) as [I1 E1]. split; [exact (S1 n In_)|]. split; [exact I1|]. split; [|exact E1].
      destruct (Hinv (s n) (S1 n In_)) as [I2 E2]. exact (S2 _ _ I2 In_ E2).
    - intros n a E. pose proof (S3 n (label_some_in t n a E)) as L. rewrite !tr_rule_label, E in L. simpl in L.
      destruct (label t (s n)) as [a'|] eqn:Ea'; [|discriminate]. simpl in L. inversion L as [Ec]. exists a'. split; [reflexivity|].
      destruct (Hcn _ _ _ _ (assoc_in (s n) (gnodes t) Ea') (assoc_in n (gnodes t) E) Ec). auto.
    - apply Hedge; [exact S1|]. intros u v Iu Iv. pose proof (S4 u v Iu Iv) as Q. rewrite !tr_rule_adj in Q. exact Q.
    - apply Hedge; [intros u Iu; exact (proj1 (Hinv u Iu))|]. intros u v Iu Iv.
      destruct (Hinv u Iu) as [Iu' Eu]. destruct (Hinv v Iv) as [Iv' Ev].
      pose proof (S4 _ _ Iu' Iv') as Q. rewrite !tr_rule_adj, Eu, Ev in Q. symmetry. exact Q.
  Qed.
End Codes.

(** * mappings that are equal as sets of pairs behave alike *)
Lemma same_pairs_mget (m1 m2 : C03_Model.mapping) : NoDup (map fst m1) -> NoDup (map fst m2) ->
  (forall p h, In (p, h) m1 <-> In (p, h) m2) -> forall p, mget m1 p = mget m2 p.
Proof.
  intros N1 N2 E p. destruct (mget m1 p) as [h|] eqn:E1.
  - symmetry. apply mget_in_nodup; [exact N2|]. apply E. unfold mget in E1. apply assoc_in in E1. exact E1.
  - destruct (mget m2 p) as [h|] eqn:E2; [|reflexivity]. exfalso.
    unfold mget in E2. apply assoc_in in E2. apply E in E2. rewrite (mget_in_nodup m1 p h N1 E2) in E1. discriminate.
Qed.
Lemma find_hit_ext (m1 m2 : C03_Model.mapping) es a b : (forall p, mget m1 p = mget m2 p) -> find_hit m1 es a b = find_hit m2 es a b.
Proof.
  intros E. induction es as [|[[u v] x] r IH]; simpl; [reflexivity|]. unfold hits, img. rewrite !E, IH. reflexivity.
Qed.
Section Kept.
  Variables (A B : hostg) (tpl : its) (s s' : N -> N) (y : C03_Model.mapping).
  Hypothesis PW : pair_wf A B.
  Hypothesis D : describes A B tpl.
  Hypothesis RA : rule_aut tpl s s'.
  Hypothesis Yk : NoDup (map fst y).
  Hypothesis Yv : NoDup (map snd y).
  Hypothesis Ys : forall p h, In (p, h) y <-> In (p, h) (aut_map tpl s).
  Let Hwr := d_wf _ _ _ D.
  Let m := aut_map tpl s.
  Let Hnd : NoDup (node_ids tpl) := wf_rc_nodup tpl Hwr.

  Lemma m_keys : NoDup (map fst m).
  Proof. unfold m. rewrite aut_map_fst. exact Hnd. Qed.
  Lemma y_mget p : mget y p = mget m p.
  Proof. apply same_pairs_mget; [exact Yk|exact m_keys|exact Ys]. Qed.
  Lemma y_perm : Permutation y m.
  Proof. apply NoDup_Permutation; [exact (NoDup_map_inv fst y Yk)|exact (NoDup_map_inv fst m m_keys)|]. intros [p h]. apply Ys. Qed.

  Lemma y_MN n a : In (n, a) (gnodes tpl) ->
    exists h x z, mget y n = Some h /\ label A h = Some x /\ label B h = Some z /\ node_fit a x z.
  Proof. intros I. destruct (aut_MN A B tpl s s' (d_fits _ _ _ D) RA n a I) as (h & x & z & E & R). exists h, x, z. rewrite y_mget. auto. Qed.
  Lemma y_ME u v x : In (u, v, x) (gedges tpl) ->
    exists hu hv, mget y u = Some hu /\ mget y v = Some hv /\ eG x = order_in A hu hv /\ eH x = order_in B hu hv.
  Proof. intros I. destruct (aut_ME A B tpl s s' (d_fits _ _ _ D) RA u v x I) as (hu & hv & E1 & E2 & R). exists hu, hv. rewrite !y_mget. auto. Qed.

  Lemma y_match : match_rcb A tpl y = true.
  Proof.
    apply (m_match_rc A B tpl y y_MN y_ME Yk Yv). rewrite (Permutation_length y_perm). apply aut_map_length.
  Qed.

  Theorem kept_regen : match_rcb A tpl y = true /\ exists T, glue A tpl y = Some T /\ regen_exact T A B = true.
  Proof.
    split; [exact y_match|].
    assert (MCe : forall a b, order_in A a b <> order_in B a b -> find_hit y (gedges tpl) a b <> None).
    { intros a b NE. rewrite (find_hit_ext y m (gedges tpl) a b y_mget). exact (aut_MCe A B tpl s s' D RA a b NE). }
    assert (MCn : forall h x z, label A h = Some x -> label B h = Some z -> sel x <> sel z -> In h (map snd y)).
    { intros h x z Ex Ez NE. pose proof (aut_MCn A B tpl s s' D RA h x z Ex Ez NE) as I.
      apply (Permutation_in _ (Permutation_map snd (Permutation_sym y_perm))). exact I. }
    destruct (m_glue_some A B tpl y y_ME PW Hwr y_match) as [T ET]. exists T. split; [exact ET|].
    exact (m_regen_exact A B tpl y y_MN y_ME PW Hwr y_match T ET MCe MCn).
  Qed.
End Kept.

(** * the theorem: pruning a raw list that contains the identity keeps a mapping that regenerates *)
Section PrunedAny.
  Variables (cn : inode -> N) (ce : iedge -> N) (A B : hostg) (rc : its) (raw : list C03_Model.mapping).
  Hypothesis PW : pair_wf A B.
  Hypothesis D : describes A B rc.
  Hypothesis Hcodes : faithful cn ce rc.
  (** what the engine returns (C06): injective maps defined on atoms of the rule *)
  Hypothesis Hraw : forall m, In m raw -> NoDup (map fst m) /\ NoDup (map snd m) /\ forall p h, In (p, h) m -> In p (node_ids rc).
  (** ... the identity among them, as a set of pairs (C04_identity_among_raw) *)
  Hypothesis Hid : exists m0, In m0 raw /\ Permutation (id_map (node_ids rc)) m0.

  Theorem pruned_regen : exists y T, In y (prune (fun m : C03_Model.mapping => m) (tr_rule cn ce rc) raw) /\
                                     glue A rc y = Some T /\ regen_exact T A B = true.
  Proof.
    pose proof (d_wf _ _ _ D) as Hwr. pose proof (wf_rc_nodup rc Hwr) as Hnd.
    destruct Hid as (m0 & I0 & P0).
    assert (SG : simple_graph (tr_rule cn ce rc)).
    { split; [rewrite tr_rule_ids; exact Hnd|]. intros a b x I. unfold tr_rule in I; simpl in I. apply in_map_iff in I.
      destruct I as ([[u v] z] & E & I). inversion E; subst. exact (simple_edges_ne (gedges rc) a b z (wf_rc_simple rc Hwr) I). }
    destruct (prune_complete_fun C03_Model.mapping (fun m => m) (tr_rule cn ce rc) raw SG) with (x := m0) as (y & Iy & s & Hs & Hy).
    { intros x p h Ix Ip. rewrite tr_rule_ids. exact (proj2 (proj2 (Hraw x Ix)) p h Ip). }
    { exact I0. }
    assert (Iyr : In y raw) by exact (subseq_in _ _ y (prune_subseq C03_Model.mapping (fun m => m) (tr_rule cn ce rc) raw) Iy).
    destruct (Hraw y Iyr) as (Yk & Yv & Yd).
    assert (RA : rule_aut rc s (inv_on (node_ids rc) s)).
    { apply (aut_is_rule_aut cn ce rc s Hcodes Hwr); [|exact Hs]. intros u v x I. destruct (d_edges _ _ _ D u v x I) as (Iu & Iv & _). auto. }
    assert (M0 : forall p h, In (p, h) m0 <-> p = h /\ In p (node_ids rc)).
    { intros p h. split.
      - intros I. apply (Permutation_in _ (Permutation_sym P0)) in I. unfold id_map in I. apply in_map_iff in I.
        destruct I as (n & E & In_). inversion E; subst. auto.
      - intros [-> I]. apply (Permutation_in _ P0). unfold id_map. apply in_map_iff. exists h. auto. }
    assert (Ys : forall p h, In (p, h) y <-> In (p, h) (aut_map rc s)).
    { intros p h. unfold aut_map. rewrite in_map_iff. split.
      - intros I. exists p. split; [|exact (Yd p h I)]. f_equal.
        assert (Q : In (s p, h) m0) by (apply Hy; exists p; auto). apply M0 in Q. destruct Q as [Q _]. exact Q.
      - intros (n & E & In_). inversion E; subst n h.
        assert (Q : In (s p, s p) m0) by (apply M0; split; [reflexivity|exact (proj1 (ra_in _ _ _ RA p In_))]).
        apply Hy in Q. destruct Q as (p' & Ip' & Es).
        assert (p' = p).
        { destruct (ra_in _ _ _ RA p In_) as (_ & _ & E1 & _). destruct (ra_in _ _ _ RA p' (Yd p' (s p) Ip')) as (_ & _ & E2 & _). congruence. }
        subst p'. exact Ip'. }
    destruct (kept_regen A B rc s (inv_on (node_ids rc) s) y PW D RA Yk Yv Ys) as (_ & T & ET & ER). exists y, T. auto.
  Qed.
End PrunedAny.

Section Pruned.
  Variable cn : inode -> N.
  Variable ce : iedge -> N.
  Variables (core invert : bool) (G H : hostg).
  Hypothesis Hcodes : faithful cn ce (template core invert G H).
  Hypothesis W : pair_wfb G H = true.
  Hypothesis NH : no_explicit_H G = true.
  Hypothesis CC : core = true -> centre_carries (its_construct G H) = true.
  Let A := if invert then H else G.
  Let B := if invert then G else H.
  Let tpl := template core invert G H.
  Variable raw : list C03_Model.mapping.
  Hypothesis Hraw : forall m, In m raw -> NoDup (map fst m) /\ NoDup (map snd m) /\ forall p h, In (p, h) m -> In p (node_ids tpl).
  Hypothesis Hid : exists m0, In m0 raw /\ Permutation (id_map (node_ids tpl)) m0.

  Theorem pruned_results :
    exists T, In (Some T) (its_list core invert G H (prune (fun m : C03_Model.mapping => m) (tr_rule cn ce tpl) raw)) /\
              regen_exact T A B = true.
  Proof.
    destruct (pruned_regen cn ce A B tpl raw (pair_AB core invert G H W) (template_describes core invert G H W NH CC) Hcodes Hraw Hid)
      as (y & T & Iy & ET & ER). exists T. split; [exact (in_its_list core invert G H W NH _ y T Iy ET)|exact ER].
  Qed.
End Pruned.
