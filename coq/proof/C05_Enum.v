(** C05 — the result set does not depend on the ENUMERATION ORDER of the matcher.
    The model instantiates VF2 with the verified enumerator of lib/Mono.v, which lists matches in node-list order;
    networkx's VF2 lists the same matches (contract) in its own order, and writes each match as a dict whose item order
    is its own too.  The symmetry pruning keeps the FIRST match of every class, so WHICH representatives are kept
    depends on that order.  This file proves that it does not matter: for any two listings of the same matches — any
    order of the list, any order of the pairs inside a match, repetitions allowed — the graphs glued from the kept
    matches correspond one to one up to [obs_eq].  (Pattern without explicit X-H bonds: one glue per kept match.) *)
From Coq Require Import List ZArith Permutation.
From SK Require Import lib.LGraph.
From SK Require Import model.C03_Model model.C05_Model proof.C05_Pipe proof.C05_Set proof.C05_Result.
Import ListNotations.

(** what is needed of the rule graph and of the listed matches (all of it holds for the raw matches of a writing that
    satisfies [side_okb0]: [mono_facts]) *)
Definition rc_ok (rc : its) : Prop :=
  NoDup (node_ids rc) /\ simple_edgesb (gedges rc) = true /\
  (forall a b x, In (a, b, x) (gedges rc) -> In a (node_ids rc) /\ In b (node_ids rc)).
Definition match_ok (host : hostg) (rc : its) (k : mapping) : Prop :=
  NoDup (map fst k) /\ NoDup (map snd k) /\
  forall q h, In (q, h) k -> (exists pn, label rc q = Some pn) /\ (exists hn, label host h = Some hn).

Definition glue1 (host : hostg) (rc : its) (m : mapping) : list its :=
  match glue host rc m with Some T => [T] | None => [] end.

Lemma match_ok_items host rc k k' : same_items k k' -> NoDup (map fst k') -> NoDup (map snd k') -> match_ok host rc k -> match_ok host rc k'.
Proof.
  intros E F S (_ & _ & L). split; [exact F|]. split; [exact S|]. intros q h I. apply L. apply E. exact I.
Qed.

(** every listed match that glues is represented, up to [obs_eq], by a KEPT match *)
Lemma kept_covers_gen (host : hostg) (rc : its) (raw : list mapping) (k2 : mapping) (T2 : its) :
  rc_ok rc -> (forall m, In m raw -> match_ok host rc m) -> In k2 raw -> glue host rc k2 = Some T2 ->
  exists k' T', In k' (prune rc raw) /\ glue host rc k' = Some T' /\ obs_eq T2 T'.
Proof. intros (Rn & Rs & Rc). exact (kept_covers_raw host rc raw k2 T2 Rn Rs Rc). Qed.

(** two listings of the same matches: every match of the one is, as a set of pairs, a match of the other *)
Definition same_listing (raw raw' : list mapping) : Prop :=
  (forall m, In m raw -> exists m', In m' raw' /\ same_items m m') /\
  (forall m', In m' raw' -> exists m, In m raw /\ same_items m' m).

Theorem glued_independent_of_enumeration (host : hostg) (rc : its) (raw raw' : list mapping) :
  rc_ok rc -> (forall m, In m raw -> match_ok host rc m) -> (forall m, In m raw' -> match_ok host rc m) ->
  same_listing raw raw' ->
  forall T, In T (flat_map (glue1 host rc) (prune rc raw)) ->
    exists T', In T' (flat_map (glue1 host rc) (prune rc raw')) /\ obs_eq T T'.
Proof.
  intros (Rn & Rs & Rc) Hok Hok' (L1 & _) T HT.
  apply in_flat_map in HT. destruct HT as (k & Hk & HT).
  unfold glue1 in HT. destruct (glue host rc k) as [T0|] eqn:Hg; [|destruct HT]. destruct HT as [<-|[]].
  assert (Hraw : In k raw) by (exact (C11_Dedup.subseq_in _ _ _ (prune_subseq _ _) Hk)).
  destruct (glue_transfer host host rc rc raw' k T0 (obs_eq_refl _) (obs_eq_refl _) Rs Rn Rs Rc Hok' (Hok k Hraw) Hg (L1 k Hraw))
    as (k' & T' & Hk' & Hg' & O').
  exists T'. split; [|exact O'].
  apply in_flat_map. exists k'. split; [exact Hk'|]. unfold glue1. rewrite Hg'. left. reflexivity.
Qed.

(** [same_listing] is symmetric, so the correspondence goes both ways; a permutation of the list is a special case *)
Lemma same_listing_sym raw raw' : same_listing raw raw' -> same_listing raw' raw.
Proof. intros (A & B). split; assumption. Qed.

Lemma same_listing_perm raw raw' : Permutation raw raw' -> same_listing raw raw'.
Proof.
  intros P. split; intros m I; exists m; (split; [|intros ph; tauto]).
  - exact (Permutation_in _ P I).
  - exact (Permutation_in _ (Permutation_sym P) I).
Qed.

Section WithThr.
Context {TH : Thr}.

(** the glued graphs of the pipeline ARE the graphs glued from the kept matches (no explicit X-H bond in the pattern) *)
Lemma glued_of_glue1 strat host p : p_flag p = false ->
  glued_of strat host p = flat_map (glue1 host (p_rc p)) (prune (p_rc p) (raw_of strat host p)).
Proof.
  intros Hf. unfold glued_of, kept_of. apply flat_map_ext. intros m.
  unfold glue_all, glue_base, glue1. rewrite Hf. simpl. destruct (glue host (p_rc p) m); reflexivity.
Qed.

(** for the exhaustive strategy of a writing that satisfies [side_ok]: ANY other listing of its raw matches (the one VF2
    produces, say) leads to the same result set *)
Theorem glued_any_listing (host : hostg) (p : prepared) (raw' : list mapping) :
  side_ok host p -> same_listing (raw_of 0%N host p) raw' ->
  (forall m, In m raw' -> NoDup (map fst m) /\ NoDup (map snd m)) ->
  (forall T, In T (glued_of 0%N host p) -> exists T', In T' (flat_map (glue1 host (p_rc p)) (prune (p_rc p) raw')) /\ obs_eq T T') /\
  (forall T', In T' (flat_map (glue1 host (p_rc p)) (prune (p_rc p) raw')) -> exists T, In T (glued_of 0%N host p) /\ obs_eq T' T).
Proof.
  intros S L Hnd.
  assert (R : rc_ok (p_rc p)) by (split; [exact (so_rc_nodup _ _ S)|split; [exact (so_rc_simple _ _ S)|exact (so_rc_closed _ _ S)]]).
  assert (Hok : forall m, In m (raw_of 0%N host p) -> match_ok host (p_rc p) m).
  { intros m I. exact (mono_facts host p m S (raw_is_mono host p m S I)). }
  assert (Hok' : forall m, In m raw' -> match_ok host (p_rc p) m).
  { intros m' I. destruct (proj2 L m' I) as (m & Im & E). destruct (Hnd m' I) as [F V].
    apply (match_ok_items host (p_rc p) m m'); [intros ph; symmetry; apply E | exact F | exact V | exact (Hok m Im)]. }
  rewrite (glued_of_glue1 0%N host p (so_flag _ _ S)). split.
  - apply glued_independent_of_enumeration; assumption.
  - apply glued_independent_of_enumeration; try assumption. apply same_listing_sym. exact L.
Qed.

End WithThr.
