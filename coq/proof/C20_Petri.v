(** C20 — proofs about Part 2 of the model (PetriNet.enabled / fire / marking_to_tuple). *)
From Coq Require Import ZArith List Bool Lia.
Import ListNotations.
From SK Require Import model.C20_Model proof.C20_Spec.
Local Open Scope Z_scope.

Lemma get_set d p q c : get (set d p c) q = if N.eqb p q then c else get d q.
Proof.
  induction d as [|[r c'] d IH]; simpl; [reflexivity|].
  destruct (N.eqb_spec r p) as [->|Hrp]; simpl.
  - destruct (N.eqb p q); reflexivity.
  - rewrite IH. destruct (N.eqb_spec p q) as [<-|_]; [|reflexivity].
    now rewrite (proj2 (N.eqb_neq r p) Hrp).
Qed.

Lemma get_set_same d p c : get (set d p c) p = c.
Proof. now rewrite get_set, N.eqb_refl. Qed.

Lemma get_set_other d p q c : p <> q -> get (set d p c) q = get d q.
Proof. intros H. now rewrite get_set, (proj2 (N.eqb_neq p q) H). Qed.

Lemma fold_sub_get L : forall m p,
  get (fold_left (fun m pw => set m (fst pw) (get m (fst pw) - snd pw)) L m) p = get m p - weight L p.
Proof.
  induction L as [|[q w] L IH]; intros m p; simpl; [lia|].
  rewrite IH, get_set. destruct (N.eqb_spec q p); subst; lia.
Qed.

Lemma fold_add_get L : forall m p,
  get (fold_left (fun m pw => set m (fst pw) (get m (fst pw) + snd pw)) L m) p = get m p + weight L p.
Proof.
  induction L as [|[q w] L IH]; intros m p; simpl; [lia|].
  rewrite IH, get_set. destruct (N.eqb_spec q p); subst; lia.
Qed.

Lemma fire_t_spec t m p : get (fire_t t m) p = get m p - weight (t_pre t) p + weight (t_post t) p.
Proof. unfold fire_t. now rewrite fold_add_get, fold_sub_get. Qed.

Lemma enabled_t_spec t m :
  enabled_t t m = true <-> forall p w, In (p, w) (t_pre t) -> w <= get m p.
Proof.
  unfold enabled_t. rewrite forallb_forall. split.
  - intros H p w Hin. specialize (H (p, w) Hin). simpl in H.
    apply negb_true_iff, Z.ltb_ge in H. auto.
  - intros H [p w] Hin. simpl. apply negb_true_iff, Z.ltb_ge. auto.
Qed.

(** for a dict with unique keys (a Python dict) the weight of a place is its entry *)
Lemma weight_notin d p : ~ In p (map fst d) -> weight d p = 0.
Proof.
  induction d as [|[q c] d IH]; simpl; auto. intros H.
  destruct (N.eqb q p) eqn:E.
  - apply N.eqb_eq in E. subst. tauto.
  - rewrite IH; tauto.
Qed.

Lemma get_notin d p : ~ In p (map fst d) -> get d p = 0.
Proof.
  induction d as [|[q c] d IH]; simpl; auto. intros H.
  destruct (N.eqb q p) eqn:E.
  - apply N.eqb_eq in E. subst. tauto.
  - apply IH. tauto.
Qed.

Lemma weight_get d p : NoDup (map fst d) -> weight d p = get d p.
Proof.
  induction d as [|[q c] d IH]; simpl; auto. intros H. inversion H; subst.
  destruct (N.eqb q p) eqn:E.
  - apply N.eqb_eq in E. subst. rewrite weight_notin; auto. lia.
  - rewrite IH; auto.
Qed.

Lemma marking_to_tuple_length net m : length (marking_to_tuple net m) = length (pn_places net).
Proof. unfold marking_to_tuple. apply map_length. Qed.

Lemma marking_to_tuple_nth net m i p :
  nth_error (pn_places net) i = Some p -> nth_error (marking_to_tuple net m) i = Some (get m p).
Proof. intros H. unfold marking_to_tuple. now apply map_nth_error. Qed.

(** reading a tuple back as a dict over the place list *)
Lemma get_combine_map (f : N -> Z) ps : forall p, In p ps -> get (combine ps (map f ps)) p = f p.
Proof.
  induction ps as [|q ps IH]; intros p Hp; simpl in *; [tauto|].
  destruct (N.eqb q p) eqn:E.
  - apply N.eqb_eq in E. now subst.
  - apply N.eqb_neq in E. apply IH. destruct Hp; congruence.
Qed.

Lemma get_combine_notin ps : forall (mt : list Z) p, ~ In p ps -> get (combine ps mt) p = 0.
Proof.
  intros mt p H. apply get_notin. intros Hin. apply H.
  apply in_map_iff in Hin as [[q z] [<- Hin]]. exact (in_combine_l _ _ _ _ Hin).
Qed.

Example fire_example :
  let t := T 0%N [(0%N, 2); (1%N, 1)] [(1%N, 3); (2%N, 1)] in
  enabled_t t [(0%N, 2); (1%N, 1)] = true /\ enabled_t t [(0%N, 1); (1%N, 1)] = false /\
  fire_t t [(0%N, 2); (1%N, 1)] = [(0%N, 0); (1%N, 3); (2%N, 1)].
Proof. vm_compute. auto. Qed.
