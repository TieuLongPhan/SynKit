(** C02 — the ITS that ITSGraph builds with options ([its_construct_ab]) has the bonds of C01's construction with
    standard_order recomputed; it is well-formed for the default base choice (C01's [union]).  The centre
    stated on the two sides of the reaction is proved in proof/C02_Sides2.v for every base choice; witnesses here. *)
From Coq Require Import List NArith ZArith Bool.
From SK Require Import lib.LGraph lib.C01_GraphLemmas model.C01_Model model.C02_Model proof.C01_Proof
                       proof.C02_Generic proof.C02_Ctx proof.C02_Wfb.
Import ListNotations.
Local Open Scope Z_scope.

Definition restd (ia : bool) (e : iedge) : iedge := IE (e_G e) (e_H e) (std_ab ia (e_G e) (e_H e)).

Lemma gedges_construct_ab ia bal G H :
  gedges (its_construct_ab ia bal G H) =
  map (fun e : N * N * iedge => let '(u, v, x) := e in (u, v, restd ia x)) (gedges (its_construct G H)).
Proof.
  unfold its_construct_ab, its_construct. simpl. rewrite map_app, !map_map. f_equal; apply map_ext; intros [[u v] o]; reflexivity.
Qed.

Lemma adj_construct_ab ia bal G H u v :
  adj (its_construct_ab ia bal G H) u v = option_map (restd ia) (adj (its_construct G H) u v).
Proof. unfold adj. rewrite gedges_construct_ab. apply find_edge_map. Qed.

Lemma wf_construct_ab_false ia G H : wf G -> wf H -> wf (its_construct_ab ia false G H).
Proof.
  intros WG WH. destruct (union G H WG WH) as (_ & _ & _ & _ & W). apply wf_intro.
  - exact (proj1 W).
  - intros a b x I. rewrite gedges_construct_ab in I. apply in_map_iff in I. destruct I as ([[a' b'] y] & E & I).
    inversion E; subst. exact (wf_edge_nodes W I).
  - rewrite gedges_construct_ab. apply (simple_map_attr (fun _ _ x => restd ia x)). apply wf_simple. exact W.
Qed.

(** non-vacuity: the 3-atom example of proof/C02_Ctx.v, with and without ignore_aromaticity *)
Example C02_sides_nonvacuous :
  wf ia_G2 /\ wf ia_H2 /\ length (gnodes ia_G2) = length (gnodes ia_H2) /\
  adj (get_rc (its_construct_ab true true ia_G2 ia_H2)) 2%N 3%N = Some (IE 4 2 2) /\
  adj (get_rc (its_construct_ab true true ia_G2 ia_H2)) 1%N 2%N = None /\
  adj (get_rc (its_construct_ab false true ia_G2 ia_H2)) 1%N 2%N = Some (IE 3 2 1).
Proof.
  split; [|split; [|vm_compute; repeat split]].
  - apply wfb_sound. reflexivity.
  - apply wfb_sound. reflexivity.
Qed.
