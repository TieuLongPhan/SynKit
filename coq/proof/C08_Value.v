(** C08 — value objects built on signatures: SynGraph / CanonicalGraph / SynRule equality (model: C08_Model
    syngraph_eqb, cangraph_eqb, synrule_eqb) holds exactly for isomorphic content with the exact back-end, and only
    for isomorphic content with every back-end.  From C08_Sound (equal => isomorphic) and C08_Invariant. *)
From Coq Require Import List NArith ZArith Bool Arith Lia Permutation.
From SK Require Import lib.LGraph lib.StrJoin.
From SK Require Import model.C08_Model proof.C08_Spec proof.C08_Sort proof.C08_Faithful proof.C08_Cov proof.C08_SigFun
                       proof.C08_Render proof.C08_Nauty proof.C08_Sound proof.C08_Invariant.
Import ListNotations.

Lemma str_eqb_spec a : forall b, str_eqb a b = true <-> a = b.
Proof.
  induction a as [|x a IH]; intros [|y b]; simpl; split; intros H; try discriminate; auto.
  - apply andb_prop in H. destruct H as [H1 H2]. apply N.eqb_eq in H1. apply IH in H2. subst. reflexivity.
  - inversion H; subst. rewrite N.eqb_refl. apply IH. reflexivity.
Qed.
Lemma str_eqb_refl a : str_eqb a a = true.
Proof. apply str_eqb_spec. reflexivity. Qed.
Lemma synrule_eqb_refl ser a : synrule_eqb ser a a = true.
Proof. unfold synrule_eqb. rewrite !str_eqb_refl. reflexivity. Qed.

(* ---------------- iso_cov is an equivalence on well-formed graphs ---------------- *)
Lemma iso_cov_refl g : wf g -> iso_cov g g.
Proof. exact (iso_by_refl _ _ cov_laws g). Qed.
Lemma iso_cov_sym g h : wf g -> wf h -> iso_cov g h -> iso_cov h g.
Proof. exact (iso_by_sym _ _ cov_laws g h). Qed.
Lemma iso_cov_trans g h k : iso_cov g h -> iso_cov h k -> iso_cov g k.
Proof. exact (iso_by_trans _ _ cov_laws g h k). Qed.

(* ---------------- canonical graphs are well formed ---------------- *)
Lemma eqb_inj_on f (nodes : list N) x y : C08_Spec.inj_on f nodes -> In x nodes -> In y nodes -> N.eqb (f x) (f y) = N.eqb x y.
Proof.
  intros Hi Hx Hy. destruct (N.eqb_spec x y) as [->|H]; [apply N.eqb_refl|].
  apply N.eqb_neq. intro E. apply H. apply Hi; auto.
Qed.
Lemma find_edge_map_none f (l : list (N * N * eattr)) a b (nodes : list N) :
  C08_Spec.inj_on f nodes -> In a nodes -> In b nodes ->
  (forall c d x, In (c, d, x) l -> In c nodes /\ In d nodes) ->
  find_edge a b l = None -> find_edge (f a) (f b) (map (fun e => let '(c, d, x) := e in (f c, f d, x)) l) = None.
Proof.
  intros Hi Ha Hb. induction l as [|[[c d] x] l IH]; intros Hin Hn; simpl in *; auto.
  destruct (Hin c d x (or_introl eq_refl)) as [Hc Hd].
  destruct ((N.eqb c a && N.eqb d b) || (N.eqb c b && N.eqb d a)) eqn:E; [discriminate|].
  rewrite !(eqb_inj_on f nodes) by auto. rewrite E. apply IH; auto. intros c0 d0 x0 I0. apply (Hin c0 d0 x0). right. exact I0.
Qed.

Lemma wf_relabel f (g : graph) : wf g -> C08_Spec.inj_on f (node_ids g) -> wf (relabel f g).
Proof.
  intros (Hnd & Hend & Hu) Hi. split; [|split].
  - rewrite node_ids_relabel. apply inj_on_NoDup_map; auto.
  - intros a b x I. unfold relabel in I. cbn [gedges] in I. apply in_map_iff in I. destruct I as ([[c d] y] & E & I).
    inversion E; subst. destruct (Hend _ _ _ I) as (Hc & Hd & Hne). rewrite node_ids_relabel.
    split; [apply in_map; auto|]. split; [apply in_map; auto|]. intro Q. apply Hne. apply Hi; auto.
  - intros l1 a b x l2 E. unfold relabel in E. cbn [gedges] in E.
    apply map_eq_app in E. destruct E as (m1 & m2 & E0 & E1 & E2).
    destruct m2 as [|[[c d] y] m2]; [discriminate|]. simpl in E2. inversion E2 as [[Ea Eb Ex El]]. clear E2. subst a b x l2 l1.
    destruct (Hu _ _ _ _ _ E0) as [N1 N2].
    assert (Hc : In c (node_ids g) /\ In d (node_ids g)).
    { destruct (Hend c d y) as (A & B & _); auto. rewrite E0. apply in_or_app. right. left. reflexivity. }
    assert (Hin : forall l, incl l (gedges g) -> forall c0 d0 x0, In (c0, d0, x0) l -> In c0 (node_ids g) /\ In d0 (node_ids g)).
    { intros l Hl c0 d0 x0 I. destruct (Hend c0 d0 x0 (Hl _ I)) as (A & B & _). auto. }
    split; apply (find_edge_map_none f _ c d (node_ids g)); try tauto.
    + apply Hin. rewrite E0. intros e I. apply in_or_app. left. exact I.
    + apply Hin. rewrite E0. intros e I. apply in_or_app. right. right. exact I.
Qed.

Lemma wf_same_edges (g k : graph) : wf g -> Permutation (gnodes k) (gnodes g) -> gedges k = gedges g -> wf k.
Proof.
  intros (Hnd & Hend & Hu) Hp He.
  assert (Hids : Permutation (node_ids k) (node_ids g)) by (apply Permutation_map; exact Hp).
  split; [|split].
  - exact (Permutation_NoDup (Permutation_sym Hids) Hnd).
  - intros a b x I. rewrite He in I. destruct (Hend _ _ _ I) as (A & B & C).
    split; [|split]; auto; apply (Permutation_in _ (Permutation_sym Hids)); auto.
  - intros l1 a b x l2 E. rewrite He in E. eauto.
Qed.
Lemma wf_faithful g cg : wf g -> faithful g cg -> wf cg.
Proof.
  intros Hg (f & Hf & Hp & He). apply (wf_same_edges (relabel f g)); auto. apply wf_relabel; auto.
Qed.
Lemma faithful_iso g cg : wf g -> faithful g cg -> iso_cov g cg.
Proof.
  intros Hg Hf. destruct (faithful_geq_cov _ _ Hf) as (f & Hi & Hq). exists f. split; auto. apply geq_cov_sym. exact Hq.
Qed.

(* ---------------- SynGraph ---------------- *)
Section VO.
Variable D : Type.
Variable digest : str -> D.

Theorem syngraph_nauty g h : wf g -> wf h -> els_ok g -> els_ok h ->
  (digest (ser_nauty g) = digest (ser_nauty h) -> ser_nauty g = ser_nauty h) ->
  (digest (ser_nauty g) = digest (ser_nauty h) <-> iso_cov g h).
Proof.
  intros Hg Hh Eg Eh Hd. split.
  - intros E. apply (signature_sound_nauty D digest g h); auto.
  - intros Hi. apply (signature_invariant_nauty D digest g h); auto.
Qed.

(* CanonicalGraph hashes the canonical graph once more *)
Theorem cangraph_nauty g h : wf g -> wf h -> els_ok g -> els_ok h ->
  (digest (ser_nauty (canon_nauty g)) = digest (ser_nauty (canon_nauty h)) -> ser_nauty (canon_nauty g) = ser_nauty (canon_nauty h)) ->
  (digest (ser_nauty (canon_nauty g)) = digest (ser_nauty (canon_nauty h)) <-> iso_cov g h).
Proof.
  intros Hg Hh Eg Eh Hd.
  pose proof (faithful_nauty g (proj1 Hg)) as Fg. pose proof (faithful_nauty h (proj1 Hh)) as Fh.
  pose proof (wf_faithful _ _ Hg Fg) as Wg. pose proof (wf_faithful _ _ Hh Fh) as Wh.
  pose proof (faithful_els_ok _ _ Fg Eg) as Kg. pose proof (faithful_els_ok _ _ Fh Eh) as Kh.
  rewrite (syngraph_nauty (canon_nauty g) (canon_nauty h) Wg Wh Kg Kh Hd).
  apply (iso_by_twins _ _ cov_laws g h _ _ Hg Hh Wg Wh); apply faithful_iso; auto.
Qed.

(* every back-end: equal wrappers only for isomorphic content ([canon] faithful: generic, wl/morgan, nauty) *)
Theorem vo_sound (canon canon' : graph -> graph) g h : wf g -> wf h -> els_ok g -> els_ok h ->
  faithful g (canon g) -> faithful h (canon' h) ->
  (digest (serialise (canon g)) = digest (serialise (canon' h)) -> serialise (canon g) = serialise (canon' h)) ->
  digest (serialise (canon g)) = digest (serialise (canon' h)) -> iso_cov g h.
Proof. intros Hg Hh Eg Eh Fg Fh Hd E. apply (sound_faithful g h (canon g) (canon' h)); auto. Qed.

(* SynRule: (rc, left, right) *)
Definition rule_ok (a : graph * graph * graph) : Prop :=
  (wf (fst (fst a)) /\ els_ok (fst (fst a))) /\ (wf (snd (fst a)) /\ els_ok (snd (fst a))) /\ (wf (snd a) /\ els_ok (snd a)).
Definition rule_iso (a b : graph * graph * graph) : Prop :=
  iso_cov (snd (fst a)) (snd (fst b)) /\ iso_cov (snd a) (snd b) /\ iso_cov (fst (fst a)) (fst (fst b)).
Definition rule_sig_eq (a b : graph * graph * graph) : Prop :=
  (digest (ser_nauty (snd (fst a))), digest (ser_nauty (snd a))) = (digest (ser_nauty (snd (fst b))), digest (ser_nauty (snd b)))
  /\ digest (ser_nauty (fst (fst a))) = digest (ser_nauty (fst (fst b))).

Theorem synrule_nauty a b : rule_ok a -> rule_ok b ->
  (forall g h, digest (ser_nauty g) = digest (ser_nauty h) -> ser_nauty g = ser_nauty h) ->
  (rule_sig_eq a b <-> rule_iso a b).
Proof.
  intros ((W1 & K1) & (W2 & K2) & (W3 & K3)) ((W1' & K1') & (W2' & K2') & (W3' & K3')) Hd.
  unfold rule_sig_eq, rule_iso. split.
  - intros [E1 E2]. inversion E1 as [[E3 E4]].
    repeat split; [apply (syngraph_nauty _ _ W2 W2' K2 K2' (Hd _ _))|apply (syngraph_nauty _ _ W3 W3' K3 K3' (Hd _ _))
                  |apply (syngraph_nauty _ _ W1 W1' K1 K1' (Hd _ _))]; auto.
  - intros (I1 & I2 & I3).
    apply (syngraph_nauty _ _ W2 W2' K2 K2' (Hd _ _)) in I1. apply (syngraph_nauty _ _ W3 W3' K3 K3' (Hd _ _)) in I2.
    apply (syngraph_nauty _ _ W1 W1' K1 K1' (Hd _ _)) in I3. rewrite I1, I2. auto.
Qed.
End VO.

(* ---------------- the digest-free verdicts that the correspondence evaluates ---------------- *)
Theorem syngraph_eqb_nauty g h : wf g -> wf h -> els_ok g -> els_ok h ->
  (syngraph_eqb ser_nauty g h = true <-> iso_cov g h).
Proof.
  intros Hg Hh Eg Eh. unfold syngraph_eqb. rewrite str_eqb_spec.
  apply (syngraph_nauty str (fun s => s) g h); auto.
Qed.
Theorem cangraph_eqb_nauty g h : wf g -> wf h -> els_ok g -> els_ok h ->
  (cangraph_eqb canon_nauty ser_nauty g h = true <-> iso_cov g h).
Proof.
  intros Hg Hh Eg Eh. unfold cangraph_eqb. rewrite str_eqb_spec.
  apply (cangraph_nauty str (fun s => s) g h); auto.
Qed.
Theorem synrule_eqb_nauty a b : rule_ok a -> rule_ok b -> (synrule_eqb ser_nauty a b = true <-> rule_iso a b).
Proof.
  intros Ha Hb. rewrite <- (synrule_nauty str (fun s => s) a b Ha Hb (fun _ _ E => E)).
  unfold synrule_eqb, rule_sig_eq. rewrite !andb_true_iff, !str_eqb_spec. split.
  - intros [[E1 E2] E3]. rewrite E1, E2. auto.
  - intros [E1 E2]. pose proof (f_equal fst E1) as H1. pose proof (f_equal snd E1) as H2. cbn [fst snd] in H1, H2. auto.
Qed.
Theorem syngraph_eqb_sound_generic g h : wf g -> wf h -> els_ok g -> els_ok h -> syngraph_eqb ser_generic g h = true -> iso_cov g h.
Proof.
  intros Hg Hh Eg Eh E. apply str_eqb_spec in E.
  apply (vo_sound str (fun s => s) canon_generic canon_generic g h); auto; apply faithful_generic; [apply Hg|apply Hh].
Qed.
Theorem cangraph_eqb_sound_generic g h : wf g -> wf h -> els_ok g -> els_ok h ->
  cangraph_eqb canon_generic ser_generic g h = true -> iso_cov g h.
Proof.
  intros Hg Hh Eg Eh E. apply str_eqb_spec in E.
  pose proof (faithful_generic g (proj1 Hg)) as Fg. pose proof (faithful_generic h (proj1 Hh)) as Fh.
  pose proof (wf_faithful _ _ Hg Fg) as Wg. pose proof (wf_faithful _ _ Hh Fh) as Wh.
  assert (Hi : iso_cov (canon_generic g) (canon_generic h)).
  { apply (vo_sound str (fun s => s) canon_generic canon_generic); auto.
    - apply (faithful_els_ok _ _ Fg Eg). - apply (faithful_els_ok _ _ Fh Eh).
    - apply faithful_generic. apply Wg. - apply faithful_generic. apply Wh. }
  apply (iso_by_twins _ _ cov_laws g h _ _ Hg Hh Wg Wh); [apply faithful_iso; auto|apply faithful_iso; auto|exact Hi].
Qed.

Theorem synrule_nauty_flat (D : Type) (digest : str -> D) (rc l r rc' l' r' : graph) :
  wf rc -> wf l -> wf r -> wf rc' -> wf l' -> wf r' ->
  els_ok rc -> els_ok l -> els_ok r -> els_ok rc' -> els_ok l' -> els_ok r' ->
  (forall g h, digest (ser_nauty g) = digest (ser_nauty h) -> ser_nauty g = ser_nauty h) ->
  ((digest (ser_nauty l), digest (ser_nauty r)) = (digest (ser_nauty l'), digest (ser_nauty r'))
   /\ digest (ser_nauty rc) = digest (ser_nauty rc')
   <-> iso_cov l l' /\ iso_cov r r' /\ iso_cov rc rc').
Proof.
  intros. apply (synrule_nauty D digest (rc, l, r) (rc', l', r')); auto; unfold rule_ok; cbn [fst snd]; auto.
Qed.
Theorem synrule_eqb_nauty_flat (rc l r rc' l' r' : graph) :
  wf rc -> wf l -> wf r -> wf rc' -> wf l' -> wf r' ->
  els_ok rc -> els_ok l -> els_ok r -> els_ok rc' -> els_ok l' -> els_ok r' ->
  (synrule_eqb ser_nauty (rc, l, r) (rc', l', r') = true <-> iso_cov l l' /\ iso_cov r r' /\ iso_cov rc rc').
Proof.
  intros. apply (synrule_eqb_nauty (rc, l, r) (rc', l', r')); unfold rule_ok; cbn [fst snd]; auto.
Qed.

Theorem vo_model_verdicts g h : wf g -> wf h -> els_ok g -> els_ok h ->
  (syngraph_eqb ser_nauty g h = true <-> iso_cov g h) /\
  (cangraph_eqb canon_nauty ser_nauty g h = true <-> iso_cov g h) /\
  (syngraph_eqb ser_generic g h = true -> iso_cov g h) /\
  (cangraph_eqb canon_generic ser_generic g h = true -> iso_cov g h).
Proof.
  intros Hg Hh Eg Eh. split; [apply syngraph_eqb_nauty; auto|]. split; [apply cangraph_eqb_nauty; auto|].
  split; [apply syngraph_eqb_sound_generic; auto|apply cangraph_eqb_sound_generic; auto].
Qed.

(* canonicalising a canonical graph changes nothing on the covered attributes; hence CanonicalGraph's hash (the
   signature of the canonical graph) is the signature of the raw graph *)
Theorem nauty_idempotent g : wf g -> els_ok g ->
  geq_cov (canon_nauty g) (canon_nauty (canon_nauty g)) /\ ser_nauty (canon_nauty g) = ser_nauty g.
Proof.
  intros Hg Eg.
  pose proof (faithful_nauty g (proj1 Hg)) as Fg.
  pose proof (wf_faithful _ _ Hg Fg) as Wg.
  destruct (nauty_invariant g (canon_nauty g) Hg Wg Eg (faithful_iso _ _ Hg Fg)) as [H1 H2].
  split; [exact H1|]. unfold ser_nauty. symmetry. exact H2.
Qed.

(* for the record: the attribute-sort back-end is NOT invariant under renumbering (nothing in C08 claims it):
   so_g and so_h are isomorphic (inv_ex) and get different generic serialisations *)
Example generic_not_invariant : iso_cov so_g so_h /\ ser_generic so_g <> ser_generic so_h.
Proof. split; [apply inv_ex|]. vm_compute. discriminate. Qed.

(* non-vacuity: the renumbered pair of C08_Sound/C08_Invariant compares equal, a mutant compares unequal *)
Definition so_m : graph :=
  LG [(1%N, NA [79%N] false 0 1 None); (2%N, NA [67%N] false 0 0 None); (9%N, NA [67%N] false 0 0 None)]
     [(1%N, 9%N, EA 4 None); (2%N, 9%N, EA 2 None)].
Example vo_ex : syngraph_eqb ser_nauty so_g so_h = true /\ cangraph_eqb canon_nauty ser_nauty so_g so_h = true
                /\ syngraph_eqb ser_nauty so_g so_m = false
                /\ synrule_eqb ser_nauty (so_g, so_g, so_h) (so_h, so_h, so_g) = true
                /\ synrule_eqb ser_nauty (so_g, so_g, so_h) (so_m, so_h, so_g) = false.
Proof.
  destruct inv_ex as (Wg & Wh & Eg & Hi & _). destruct so_ex as (_ & _ & Eh).
  destruct (vo_model_verdicts so_g so_h Wg Wh Eg Eh) as (V1 & V2 & _).
  split; [apply V1; exact Hi|]. split; [apply V2; exact Hi|]. split; [vm_compute; reflexivity|]. split; [|vm_compute; reflexivity].
  apply (synrule_eqb_nauty (so_g, so_g, so_h) (so_h, so_h, so_g)).
  - exact (conj (conj Wg Eg) (conj (conj Wg Eg) (conj Wh Eh))).
  - exact (conj (conj Wh Eh) (conj (conj Wh Eh) (conj Wg Eg))).
  - exact (conj Hi (conj (iso_cov_sym _ _ Wg Wh Hi) Hi)).
Qed.

Print Assumptions syngraph_nauty.
Print Assumptions cangraph_nauty.
Print Assumptions synrule_nauty.
Print Assumptions cangraph_eqb_sound_generic.
Print Assumptions nauty_idempotent.
