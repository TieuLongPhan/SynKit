(** C17 — the identifier level of _species_and_reaction_order / build_S_minus_plus (model/C17_NodeModel.v)
    computes, for EVERY injective assignment of node identifiers, the labels and matrices of the label-level
    model (model/C17_Model.v): rows and labels cannot diverge, whatever the identifiers look like
    (1..N+M, two-digit, permuted, strings).  Style: stdlib lists. *)
From Coq Require Import List ZArith Bool.
From SK Require Import model.C17_Model model.C17_NodeModel proof.C17_Proof.
Import ListNotations.
Local Open Scope nat_scope.

Lemma insert_map {A B} (g : A -> B) (lebB : B -> B -> bool) x l :
  insert lebB (g x) (map g l) = map g (insert (fun a b => lebB (g a) (g b)) x l).
Proof.
  induction l as [|a l IH]; simpl; auto. destruct (lebB (g x) (g a)); simpl; auto. now rewrite IH.
Qed.

Lemma isort_map {A B} (g : A -> B) (lebB : B -> B -> bool) l :
  isort lebB (map g l) = map g (isort (fun a b => lebB (g a) (g b)) l).
Proof. induction l as [|a l IH]; simpl; auto. rewrite IH. apply insert_map. Qed.

Definition gs (ids : str -> N) : str -> bnode := fun s => BNode (ids s) s.
Definition gr (idr : str -> N) : rxn -> bnode := fun e => BNode (idr (rid e)) (rrule e).
Definition ga (ids idr : str -> N) : arc -> barc :=
  fun a => BArc (ids (a_species a)) (idr (a_rxn a)) (a_stoich a) (a_role a).

Lemma index_get_nth {A} (h : A -> N) (l : list A) : forall k i x,
  NoDup l -> (forall a b, In a l -> In b l -> h a = h b -> a = b) ->
  nth_error l i = Some x ->
  index_get (combine (map h l) (seq k (length l))) (h x) = Some (k + i).
Proof.
  induction l as [|y l IH]; intros k i x ND Hinj Hn; [destruct i; discriminate|].
  inversion ND as [|? ? Hy ND']; subst. simpl. destruct i as [|i]; simpl in Hn.
  - injection Hn as ->. now rewrite N.eqb_refl, Nat.add_0_r.
  - assert (Ix : In x l) by (eapply nth_error_In; eauto).
    destruct (N.eqb_spec (h y) (h x)) as [E|_].
    + apply Hinj in E; [|left; auto|right; auto]. subst. contradiction.
    + rewrite (IH (S k) i x), Nat.add_succ_r; auto. intros a b Ia Ib. apply Hinj; right; auto.
Qed.

Lemma index_get_in d : forall u i, index_get d u = Some i -> In i (map snd d).
Proof.
  induction d as [|[v k] d IH]; intros u i H; simpl in *; [discriminate|].
  destruct (N.eqb v u); [injection H as ->; auto|right; eauto].
Qed.

Lemma index_get_lt keys len u i : index_get (combine keys (seq 0 len)) u = Some i -> i < len.
Proof.
  intros H. apply index_get_in in H. apply in_map_iff in H. destruct H as ([v k] & <- & H).
  apply in_combine_r in H. apply in_seq in H. apply H.
Qed.

Definition cell (M : list (list Z)) (i j : nat) : Z := nth j (nth i M []) 0%Z.
Definition shaped (m n : nat) (M : list (list Z)) : Prop := length M = m /\ Forall (fun r => length r = n) M.

Lemma row_add_length r : forall j c, length (row_add r j c) = length r.
Proof. induction r as [|x r IH]; intros [|j] c; simpl; auto. Qed.

Lemma row_add_nth r : forall j c j', j < length r ->
  nth j' (row_add r j c) 0%Z = (nth j' r 0 + if Nat.eqb j j' then c else 0)%Z.
Proof.
  induction r as [|x r IH]; intros j c j' H; [inversion H|].
  destruct j as [|j], j' as [|j']; simpl;
    [reflexivity | symmetry; apply Z.add_0_r | symmetry; apply Z.add_0_r | apply IH, Nat.succ_lt_mono, H].
Qed.

Lemma mat_add_length M : forall i j c, length (mat_add M i j c) = length M.
Proof. induction M as [|r M IH]; intros [|i] j c; simpl; auto. Qed.

Lemma mat_add_shaped m n M i j c : shaped m n M -> shaped m n (mat_add M i j c).
Proof.
  intros [<- R]. split; [apply mat_add_length|]. revert i.
  induction R as [|r M Hr R IH]; intros [|i]; simpl; constructor; auto. now rewrite row_add_length.
Qed.

Lemma mat_add_cell m n M : forall i j c i' j', shaped m n M -> i < m -> j < n ->
  cell (mat_add M i j c) i' j' = (cell M i' j' + if Nat.eqb i i' && Nat.eqb j j' then c else 0)%Z.
Proof.
  intros i j c i' j' [<- R] Hi Hj. revert i i' Hi. induction R as [|r M Hr R IH]; intros i i' Hi; [inversion Hi|].
  destruct i as [|i], i' as [|i']; unfold cell; simpl.
  - apply row_add_nth. now rewrite Hr.
  - symmetry. apply Z.add_0_r.
  - symmetry. apply Z.add_0_r.
  - apply IH, Nat.succ_lt_mono, Hi.
Qed.

Lemma zeros_shaped m n : shaped m n (zeros m n).
Proof.
  split; [apply repeat_length|]. apply Forall_forall. intros r H. apply repeat_spec in H. subst. apply repeat_length.
Qed.
Lemma zeros_cell m n i j : cell (zeros m n) i j = 0%Z.
Proof.
  unfold cell, zeros.
  destruct (nth_in_or_default i (repeat (repeat 0%Z n) m) []) as [H|H].
  - apply repeat_spec in H. rewrite H. apply nth_repeat.
  - rewrite H. now destruct j.
Qed.

Lemma mat_ext m n (A B : list (list Z)) : shaped m n A -> shaped m n B ->
  (forall i j, i < m -> j < n -> cell A i j = cell B i j) -> A = B.
Proof.
  intros [LA RA] [LB RB] H. apply (nth_ext A B [] []); [congruence|]. intros i Hi.
  pose proof (proj1 (Forall_nth _ A) RA i [] Hi) as La. rewrite LA, <- LB in Hi.
  pose proof (proj1 (Forall_nth _ B) RB i [] Hi) as Lb. simpl in La, Lb.
  apply (nth_ext _ _ 0%Z 0%Z); [congruence|]. intros j Hj. apply H; congruence.
Qed.

Section Pass.
Variables (m n : nat) (pos : barc -> option (nat * nat)).
Hypothesis pos_ok : forall a i j, pos a = Some (i, j) -> i < m /\ j < n.

Definition stepf (M : list (list Z)) (a : barc) : list (list Z) :=
  match pos a with Some (i, j) => mat_add M i j (ba_stoich a) | None => M end.
Definition contrib (a : barc) (i' j' : nat) : Z :=
  match pos a with
  | Some (i, j) => if Nat.eqb i i' && Nat.eqb j j' then ba_stoich a else 0%Z
  | None => 0%Z
  end.

Lemma stepf_shaped M a : shaped m n M -> shaped m n (stepf M a).
Proof. intros H. unfold stepf. destruct (pos a) as [[i j]|]; auto using mat_add_shaped. Qed.

Lemma stepf_cell M a i' j' : shaped m n M -> cell (stepf M a) i' j' = (cell M i' j' + contrib a i' j')%Z.
Proof.
  intros H. unfold stepf, contrib. destruct (pos a) as [[i j]|] eqn:E; [|symmetry; apply Z.add_0_r].
  destruct (pos_ok a i j E). now apply (mat_add_cell m n).
Qed.

Lemma pass_shaped arcs : forall M, shaped m n M -> shaped m n (fold_left stepf arcs M).
Proof. induction arcs as [|a arcs IH]; intros M H; simpl; auto using stepf_shaped. Qed.

Lemma pass_cell arcs : forall M i' j', shaped m n M ->
  cell (fold_left stepf arcs M) i' j' = (cell M i' j' + fold_right (fun a acc => contrib a i' j' + acc) 0 arcs)%Z.
Proof.
  induction arcs as [|a arcs IH]; intros M i' j' H; simpl; [symmetry; apply Z.add_0_r|].
  rewrite IH, stepf_cell by auto using stepf_shaped. symmetry. apply Z.add_assoc.
Qed.
End Pass.

Lemma fold_left_ext {A B} (f g : A -> B -> A) l : (forall a b, f a b = g a b) -> forall a, fold_left f l a = fold_left g l a.
Proof. intros H. induction l as [|b l IH]; intros a; simpl; auto. rewrite H. apply IH. Qed.

Lemma nth_eqb_streqb {A} (f : A -> str) l i j x y :
  nth_error l i = Some x -> nth_error l j = Some y -> NoDup (map f l) -> Nat.eqb i j = streqb (f x) (f y).
Proof.
  intros Hi Hj ND. apply (map_nth_error f) in Hi. apply (map_nth_error f) in Hj.
  destruct (Nat.eqb_spec i j) as [->|Hne]; symmetry.
  - apply streqb_eq. congruence.
  - apply streqb_neq. intros E. apply Hne, (proj1 (NoDup_nth_error _) ND); [apply nth_error_Some|]; congruence.
Qed.

Section Refine.
Variables (ids idr : str -> N) (net : list rxn) (iso : list str).
Hypothesis ids_inj : forall s s', In s (species_set net iso) -> In s' (species_set net iso) -> ids s = ids s' -> s = s'.
Hypothesis idr_inj : forall e e', In e net -> In e' net -> idr (rid e) = idr (rid e') -> rid e = rid e'.
Hypothesis ND : NoDup (map rid net).

Let G := export ids idr net iso.
Let sp := species_order net iso.
Let rx := reaction_order net.

Lemma G_species : bg_species G = map (gs ids) (species_set net iso). Proof. reflexivity. Qed.
Lemma G_rxns : bg_rxns G = map (gr idr) (edges_sorted net). Proof. reflexivity. Qed.
Lemma G_arcs : bg_arcs G = map (ga ids idr) (bip_arcs net). Proof. reflexivity. Qed.

Lemma G_species_length : length (bg_species G) = length sp.
Proof. rewrite G_species, map_length. symmetry. apply isort_length. Qed.
Lemma G_rxns_length : length (bg_rxns G) = length rx.
Proof. rewrite G_rxns, map_length. symmetry. apply isort_length. Qed.

Lemma labels_species : node_labels (bg_species G) = sp.
Proof.
  unfold node_labels, nodes_sorted. rewrite G_species, isort_map, map_map. apply map_id.
Qed.

Lemma labels_rxns : node_labels (bg_rxns G) = map rrule rx.
Proof. unfold node_labels, nodes_sorted. rewrite G_rxns, isort_map, map_map. reflexivity. Qed.

Lemma index_species : node_index (bg_species G) = combine (map ids sp) (seq 0 (length sp)).
Proof.
  unfold node_index, nodes_sorted. rewrite G_species_length, G_species, isort_map, !map_map. reflexivity.
Qed.

Lemma index_rxns : node_index (bg_rxns G) = combine (map (fun e => idr (rid e)) rx) (seq 0 (length rx)).
Proof.
  unfold node_index, nodes_sorted. rewrite G_rxns_length, G_rxns, isort_map, !map_map. reflexivity.
Qed.

Lemma sp_nodup : NoDup sp.
Proof. unfold sp. rewrite species_order_eq. apply ssorted_NoDup, species_set_sorted. Qed.

Lemma sp_in s : In s sp <-> In s (species_set net iso).
Proof. unfold sp. rewrite species_order_eq. tauto. Qed.

Lemma rx_in e : In e rx <-> In e net.
Proof. apply reaction_order_in. Qed.

Lemma rx_nodup_rid : NoDup (map rid rx).
Proof. eapply NoDup_rid_perm; [apply reaction_order_perm|exact ND]. Qed.

Lemma species_index_of s i : nth_error sp i = Some s -> index_get (node_index (bg_species G)) (ids s) = Some i.
Proof.
  intros H. rewrite index_species.
  rewrite (index_get_nth ids sp 0 i s); auto.
  - apply sp_nodup.
  - intros a b Ia Ib. apply ids_inj; apply sp_in; auto.
Qed.

Lemma rxn_index_of e j : nth_error rx j = Some e -> index_get (node_index (bg_rxns G)) (idr (rid e)) = Some j.
Proof.
  intros H. rewrite index_rxns, <- (map_map rid idr), <- (map_length rid rx).
  apply (index_get_nth idr (map rid rx) 0 j (rid e)); [apply rx_nodup_rid | | apply map_nth_error, H].
  intros a b Ia Ib. apply in_map_iff in Ia. apply in_map_iff in Ib.
  destruct Ia as (x & <- & Ix), Ib as (y & <- & Iy). apply idr_inj; now apply rx_in.
Qed.

(** every arc of the export joins a species of the species list and a reaction of the reaction list *)
Definition arc_ok (a : arc) : Prop := In (a_species a) sp /\ exists e, In e rx /\ a_rxn a = rid e.

Lemma arcs_ok : Forall arc_ok (bip_arcs net).
Proof using idr_inj. (* proof/C19_NodesProof.v applies this lemma to [idr_inj] *)
  apply Forall_forall. intros a H. destruct (bip_arcs_in net a H) as (e & Ie & Hs & Hr). split.
  - apply sp_in, species_set_in. left. exists e. auto.
  - exists e. split; [apply rx_in; exact Ie|exact Hr].
Qed.

Definition pos_of (ro : role) (a : barc) : option (nat * nat) :=
  if role_eqb (ba_role a) ro
  then match index_get (node_index (bg_species G)) (ba_species a), index_get (node_index (bg_rxns G)) (ba_rxn a) with
       | Some i, Some j => Some (i, j)
       | _, _ => None
       end
  else None.

Lemma pos_of_ok ro a i j : pos_of ro a = Some (i, j) -> i < length sp /\ j < length rx.
Proof.
  unfold pos_of. destruct (role_eqb (ba_role a) ro); [|discriminate].
  destruct (index_get (node_index (bg_species G)) (ba_species a)) as [i0|] eqn:E1; [|discriminate].
  destruct (index_get (node_index (bg_rxns G)) (ba_rxn a)) as [j0|] eqn:E2; [|discriminate].
  intros H. injection H as <- <-.
  rewrite index_species in E1. rewrite index_rxns in E2.
  split; eapply index_get_lt; eauto.
Qed.

Lemma fill_as_pass ro :
  fill ro G = fold_left (stepf (pos_of ro)) (bg_arcs G) (zeros (length sp) (length rx)).
Proof.
  unfold fill. rewrite G_species_length, G_rxns_length. apply fold_left_ext. intros M a. unfold stepf, pos_of.
  destruct (role_eqb (ba_role a) ro); auto.
  destruct (index_get (node_index (bg_species G)) (ba_species a)); auto.
  destruct (index_get (node_index (bg_rxns G)) (ba_rxn a)); auto.
Qed.

Lemma entry_cons ro a l s id :
  entry ro (a :: l) s id =
  (if streqb (a_species a) s && streqb (a_rxn a) id && role_eqb (a_role a) ro
   then a_stoich a + entry ro l s id else entry ro l s id)%Z.
Proof. reflexivity. Qed.

Lemma contrib_arc ro i j s e a :
  nth_error sp i = Some s -> nth_error rx j = Some e -> arc_ok a ->
  contrib (pos_of ro) (ga ids idr a) i j =
  if streqb (a_species a) s && streqb (a_rxn a) (rid e) && role_eqb (a_role a) ro then a_stoich a else 0%Z.
Proof.
  intros Hi Hj (Has & r & Ir & Hr).
  apply In_nth_error in Has. destruct Has as [ix Hix]. apply In_nth_error in Ir. destruct Ir as [jr Hjr].
  unfold contrib, pos_of, ga. cbn [ba_species ba_rxn ba_stoich ba_role].
  rewrite (species_index_of _ _ Hix), Hr, (rxn_index_of _ _ Hjr).
  rewrite <- (nth_eqb_streqb (fun s => s) sp ix i _ _ Hix Hi) by (rewrite map_id; apply sp_nodup).
  rewrite <- (nth_eqb_streqb rid rx jr j _ _ Hjr Hj) by apply rx_nodup_rid.
  destruct (role_eqb (a_role a) ro); [rewrite andb_true_r | rewrite andb_false_r]; reflexivity.
Qed.

Lemma contrib_sum ro i j s e l :
  nth_error sp i = Some s -> nth_error rx j = Some e -> Forall arc_ok l ->
  fold_right (fun a acc => (contrib (pos_of ro) a i j + acc)%Z) 0%Z (map (ga ids idr) l) = entry ro l s (rid e).
Proof.
  intros Hi Hj. induction 1 as [|a l Ha Hl IH]; [reflexivity|].
  cbn [map fold_right]. rewrite IH, (contrib_arc ro i j s e a Hi Hj Ha), entry_cons.
  destruct (_ && _ && _); [reflexivity|apply Z.add_0_l].
Qed.

Lemma S_side_shaped ro : shaped (length sp) (length rx) (S_side ro net iso).
Proof.
  unfold S_side. split; [apply map_length|].
  apply Forall_map, Forall_forall. intros s _. apply map_length.
Qed.

Lemma fill_eq ro : fill ro G = S_side ro net iso.
Proof.
  rewrite fill_as_pass.
  apply (mat_ext (length sp) (length rx)); [apply pass_shaped, zeros_shaped | apply S_side_shaped |].
  intros i j Hi Hj.
  rewrite (pass_cell (length sp) (length rx) (pos_of ro) (pos_of_ok ro)), zeros_cell by apply zeros_shaped.
  destruct (nth_error sp i) as [s|] eqn:Es; [|apply nth_error_None in Es; now apply Nat.lt_nge in Hi].
  destruct (nth_error rx j) as [e|] eqn:Ee; [|apply nth_error_None in Ee; now apply Nat.lt_nge in Hj].
  rewrite G_arcs, (contrib_sum ro i j s e _ Es Ee arcs_ok).
  unfold cell, S_side. now erewrite nth_map2 by eassumption.
Qed.

Theorem nodes_refine :
  node_labels (bg_species G) = species_order net iso /\
  node_labels (bg_rxns G) = map rrule (reaction_order net) /\
  fill Reactant G = S_minus net iso /\
  fill Product G = S_plus net iso /\
  build_S_nodes G = build_S net iso.
Proof.
  split; [apply labels_species|]. split; [apply labels_rxns|].
  split; [apply (fill_eq Reactant)|]. split; [apply (fill_eq Product)|].
  unfold build_S_nodes, build_S, S_plus, S_minus. now rewrite !fill_eq.
Qed.
End Refine.

Lemma look_nth keys : forall vals i k, NoDup keys -> length vals = length keys ->
  nth_error keys i = Some k -> nth_error vals i = Some (look keys vals k).
Proof.
  unfold look. induction keys as [|k0 keys IH]; intros vals i k ND L H; [destruct i; discriminate|].
  destruct vals as [|v vals]; [discriminate|]. simpl in L. inversion ND as [|? ? Hk ND']; subst.
  destruct i as [|i]; simpl in *.
  - injection H as ->. now rewrite streqb_refl.
  - assert (k0 <> k) by (intros ->; apply Hk; eapply nth_error_In; eauto).
    rewrite (streqb_neq k0 k) by assumption. apply IH; auto.
Qed.

Lemma look_inj keys vals : NoDup keys -> NoDup vals -> length vals = length keys ->
  forall a b, In a keys -> In b keys -> look keys vals a = look keys vals b -> a = b.
Proof.
  intros NK NV L a b Ia Ib E.
  apply In_nth_error in Ia. apply In_nth_error in Ib. destruct Ia as [i Hi], Ib as [j Hj].
  pose proof (look_nth keys vals i a NK L Hi) as Vi. pose proof (look_nth keys vals j b NK L Hj) as Vj.
  rewrite E, <- Vj in Vi. apply (proj1 (NoDup_nth_error vals) NV) in Vi; [congruence|].
  apply nth_error_Some. congruence.
Qed.

(** the identifier-level computation evaluated by the correspondence ([graph_of]: identifiers handed over as two lists)
    equals the label-level model whenever the identifiers are pairwise distinct *)
Theorem graph_of_refine (net : list rxn) (iso : list str) (sid rids : list N) :
  NoDup (map rid net) ->
  NoDup sid -> length sid = length (species_set net iso) ->
  NoDup rids -> length rids = length net ->
  let G := graph_of net iso sid rids in
  node_labels (bg_species G) = species_order net iso /\
  node_labels (bg_rxns G) = map rrule (reaction_order net) /\
  fill Reactant G = S_minus net iso /\
  fill Product G = S_plus net iso /\
  build_S_nodes G = build_S net iso.
Proof.
  intros ND NS LS NR LR. apply nodes_refine; auto.
  - apply look_inj; auto. apply ssorted_NoDup, species_set_sorted.
  - intros e e' Ie Ie'. apply look_inj; auto.
    + exact (NoDup_rid_perm _ _ (edges_sorted_perm net) ND).
    + unfold edges_sorted. now rewrite map_length, isort_length.
    + apply in_map, edges_sorted_in, Ie.
    + apply in_map, edges_sorted_in, Ie'.
Qed.

(** Non-vacuity: 2 A + B -> C (rule "r", id "e2"), C -> A (rule "q", id "e1"); species identifiers 11, 2, 10 for A, B, C
    (as strings "11" < "2" but 2 < 10 < 11 as numbers: sorting identifiers either way disagrees with the label order),
    reaction identifiers 7 and 3. *)
Definition sA : str := [65%N].
Definition sB : str := [66%N].
Definition sC : str := [67%N].
Definition ex_net : list rxn :=
  [ ([101%N; 50%N], [114%N], [(sA, 2%Z); (sB, 1%Z)], [(sC, 1%Z)]);
    ([101%N; 49%N], [113%N], [(sC, 1%Z)], [(sA, 1%Z)]) ].
Definition ex_G : bgraph := graph_of ex_net [] [11%N; 2%N; 10%N] [7%N; 3%N].

Example ex_nodes_nonvacuous :
  node_labels (bg_species ex_G) = [sA; sB; sC] /\
  build_S_nodes ex_G = [[1; -2]; [0; -1]; [-1; 1]]%Z /\
  build_S_nodes ex_G = build_S ex_net [] /\
  index_get (node_index (bg_species ex_G)) 10%N = Some 2.
Proof. vm_compute. repeat split. Qed.
