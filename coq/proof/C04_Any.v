(** C04 — regeneration along the identity composed with a symmetry of the rule (what the pruning by rule automorphisms
    may keep instead of the identity), the identity itself being the trivial case; the boolean [describesb] is sound,
    so the theorem holds for ANY rule that passes it (used as a per-case validation of the rule preparation in both
    hydrogen modes). *)
From Coq Require Import List NArith ZArith Bool Lia.
From SK Require Import lib.LGraph model.C03_Model model.C04_Model proof.C03_Proof proof.C03_Glue proof.C04_Glue proof.C04_Template.
Import ListNotations.
Local Open Scope Z_scope.

Lemma mget_in_snd (m : mapping) p h : mget m p = Some h -> In h (map snd m).
Proof. intros E. unfold mget in E. apply assoc_in in E. change h with (snd (p, h)). apply in_map. exact E. Qed.

(** * a symmetry of the rule: a bijection of its atoms (with inverse [s']) preserving both tuples of every atom and the
      label of every bond *)
Record rule_aut (t : its) (s s' : N -> N) : Prop := {
  ra_in : forall n, In n (node_ids t) -> In (s n) (node_ids t) /\ In (s' n) (node_ids t) /\ s' (s n) = n /\ s (s' n) = n;
  ra_node : forall n a, label t n = Some a -> exists a', label t (s n) = Some a' /\ iG a' = iG a /\ iH a' = iH a;
  ra_edge : forall u v x, In (u, v, x) (gedges t) -> adj t (s u) (s v) = Some x;
  ra_edge' : forall u v x, In (u, v, x) (gedges t) -> adj t (s' u) (s' v) = Some x }.
(** the identity match composed with it: pattern atom n on substrate atom s n *)
Definition aut_map (t : its) (s : N -> N) : mapping := map (fun n => (n, s n)) (node_ids t).

Lemma aut_map_fst t s : map fst (aut_map t s) = node_ids t.
Proof. unfold aut_map. rewrite map_map. simpl. apply map_id. Qed.
Lemma aut_map_snd t s : map snd (aut_map t s) = map s (node_ids t).
Proof. unfold aut_map. rewrite map_map. reflexivity. Qed.
Lemma mget_aut t s n : In n (node_ids t) -> mget (aut_map t s) n = Some (s n).
Proof. unfold aut_map. exact (mget_graph s (node_ids t) n). Qed.
Lemma mget_aut_inv t s n h : mget (aut_map t s) n = Some h -> h = s n /\ In n (node_ids t).
Proof. unfold aut_map. exact (mget_graph_inv s (node_ids t) n h). Qed.
Lemma NoDup_map_inj {X Y} (f : X -> Y) (l : list X) : NoDup l -> (forall a b, In a l -> In b l -> f a = f b -> a = b) -> NoDup (map f l).
Proof.
  induction l as [|x r IH]; simpl; intros Hnd Hi; [constructor|]. inversion Hnd; subst. constructor.
  - intros I. apply in_map_iff in I. destruct I as (y & E & I). assert (y = x) by (apply Hi; auto). subst. contradiction.
  - apply IH; auto.
Qed.

Lemma aut_map_length t s : length (aut_map t s) = length (gnodes t).
Proof. unfold aut_map, node_ids. rewrite !map_length. reflexivity. Qed.

Lemma rule_aut_id t : wf_rcb t = true -> rule_aut t (fun n => n) (fun n => n).
Proof.
  intros Hw.
  assert (He : forall u v x, In (u, v, x) (gedges t) -> adj t u v = Some x).
  { intros u v x I. unfold adj. apply simple_in_find; [apply simpleP_of_b; exact (wf_rc_simple t Hw)|exact I]. }
  constructor; eauto.
Qed.

Section Aut.
  Variables (A B : hostg) (tpl : its) (s s' : N -> N).
  Hypothesis F : fits A B tpl.
  Hypothesis RA : rule_aut tpl s s'.
  Let m := aut_map tpl s.
  Let Hwr := f_wf _ _ _ F.
  Let Hnd : NoDup (node_ids tpl) := wf_rc_nodup tpl Hwr.

  Lemma aut_MN n a : In (n, a) (gnodes tpl) ->
    exists h x y, mget m n = Some h /\ label A h = Some x /\ label B h = Some y /\ node_fit a x y.
  Proof.
    intros I. assert (In_ : In n (node_ids tpl)) by (unfold node_ids; change n with (fst (n, a)); apply in_map; exact I).
    exists (s n). destruct (ra_node _ _ _ RA n a (label_in tpl n a Hnd I)) as (a' & Ea' & EG & EH).
    destruct (f_nodes _ _ _ F (s n) a' (assoc_in (s n) (gnodes tpl) Ea')) as (x & y & Ex & Ey & NF).
    exists x, y. split; [exact (mget_aut tpl s n In_)|]. split; [exact Ex|]. split; [exact Ey|].
    unfold node_fit in *. rewrite <- EG, <- EH. exact NF.
  Qed.

  Lemma aut_ME u v x : In (u, v, x) (gedges tpl) ->
    exists hu hv, mget m u = Some hu /\ mget m v = Some hv /\ eG x = order_in A hu hv /\ eH x = order_in B hu hv.
  Proof.
    intros I. destruct (f_edges _ _ _ F u v x I) as (Iu & Iv & _ & _).
    exists (s u), (s v). split; [exact (mget_aut tpl s u Iu)|]. split; [exact (mget_aut tpl s v Iv)|].
    pose proof (ra_edge _ _ _ RA u v x I) as Ea. unfold adj in Ea. apply find_edge_in in Ea. destruct Ea as (p & q & I' & Hp).
    destruct (f_edges _ _ _ F p q x I') as (_ & _ & Eg & Eh).
    rewrite (order_in_peq A p q (s u) (s v) Hp) in Eg. rewrite (order_in_peq B p q (s u) (s v) Hp) in Eh. auto.
  Qed.

  Lemma aut_match : match_rcb A tpl m = true.
  Proof.
    apply (m_match_rc A B tpl m aut_MN aut_ME); unfold m.
    - rewrite aut_map_fst. exact Hnd.
    - rewrite aut_map_snd. apply NoDup_map_inj; [exact Hnd|]. intros a b Ia Ib E.
      destruct (ra_in _ _ _ RA a Ia) as (_ & _ & Ea & _). destruct (ra_in _ _ _ RA b Ib) as (_ & _ & Eb & _). congruence.
    - apply aut_map_length.
  Qed.
End Aut.

Section AutRegen.
  Variables (A B : hostg) (tpl : its) (s s' : N -> N).
  Hypothesis PW : pair_wf A B.
  Hypothesis D : describes A B tpl.
  Hypothesis RA : rule_aut tpl s s'.
  Let m := aut_map tpl s.
  Let F := d_fits _ _ _ D.

  Lemma aut_MCe a b : order_in A a b <> order_in B a b -> find_hit m (gedges tpl) a b <> None.
  Proof.
    intros NE Ef. destruct (d_cover_e _ _ _ D a b NE) as [x Ex]. unfold adj in Ex. apply find_edge_in in Ex.
    destruct Ex as (p & q & I & Hp). destruct (d_edges _ _ _ D p q x I) as (Ip & Iq & _).
    pose proof (ra_edge' _ _ _ RA p q x I) as Ea. unfold adj in Ea. apply find_edge_in in Ea. destruct Ea as (u & v & I' & Hp').
    destruct (d_edges _ _ _ D u v x I') as (Iu & Iv & _).
    pose proof (find_hit_none_in m (gedges tpl) a b (u, v, x) Ef I') as Hh.
    unfold hits, img, m in Hh. rewrite (mget_aut tpl s u Iu), (mget_aut tpl s v Iv) in Hh.
    destruct (ra_in _ _ _ RA p Ip) as (_ & _ & _ & Ep). destruct (ra_in _ _ _ RA q Iq) as (_ & _ & _ & Eq).
    (* {u, v} = {s' p, s' q}, hence {s u, s v} = {p, q} = {a, b} *)
    assert (Hs : peq (s u) (s v) p q = true).
    { destruct (peq_elim _ _ _ _ Hp') as [[-> ->]|[-> ->]]; rewrite Ep, Eq; [apply peq_refl|rewrite peq_sym1; apply peq_refl]. }
    rewrite (peq_trans _ _ _ _ _ _ (eq_trans (peq_swap p q (s u) (s v)) Hs) Hp) in Hh. discriminate.
  Qed.

  Lemma aut_MCn h x y : label A h = Some x -> label B h = Some y -> sel x <> sel y -> In h (map snd m).
  Proof.
    intros Ex Ey NE. pose proof (d_cover_n _ _ _ D h x y Ex Ey NE) as I.
    destruct (ra_in _ _ _ RA h I) as (_ & I' & _ & E). unfold m. rewrite aut_map_snd. rewrite <- E. apply in_map. exact I'.
  Qed.

  (** the identity composed with a symmetry of the rule is a valid match, and gluing along it gives the reaction again *)
  Theorem aut_regen : match_rcb A tpl (aut_map tpl s) = true /\
    exists T, glue A tpl (aut_map tpl s) = Some T /\ regen_exact T A B = true.
  Proof.
    pose proof (aut_match A B tpl s s' F RA) as Hm. pose proof (aut_ME A B tpl s s' F RA) as ME. split; [exact Hm|].
    destruct (m_glue_some A B tpl m ME PW (d_wf _ _ _ D) Hm) as [T ET]. exists T. split; [exact ET|].
    exact (m_regen_exact A B tpl m (aut_MN A B tpl s s' F RA) ME PW (d_wf _ _ _ D) Hm T ET aut_MCe aut_MCn).
  Qed.
End AutRegen.

(** * the identity: the match along the trivial symmetry *)
(** the identity mapping is the match along the trivial symmetry *)
Lemma aut_map_id t : aut_map t (fun n => n) = id_map (node_ids t).
Proof. reflexivity. Qed.

Section Identity.
  Variables (A B : hostg) (tpl : its).
  Let m := id_map (node_ids tpl).

  Lemma fits_match_rc : fits A B tpl -> match_rcb A tpl m = true.
  Proof. intros F. unfold m. rewrite <- aut_map_id. exact (aut_match A B tpl _ _ F (rule_aut_id tpl (f_wf _ _ _ F))). Qed.
  (** ... and of the pattern the matcher sees (the decomposed reactant side) *)
  Lemma fits_match_pattern : fits A B tpl -> match_okb A (dec_side iG eG tpl) m = true.
  Proof.
    intros F. unfold match_okb, m. rewrite id_map_fst, id_map_snd, (fits_nodupb A B tpl F). simpl.
    apply andb_true_intro; split; [apply andb_true_intro; split|]; [|apply forallb_forall..].
    - unfold id_map, node_ids, dec_side; simpl. rewrite !map_length. apply Nat.eqb_refl.
    - intros [n a] I. unfold node_okb. simpl.
      apply in_map_iff in I. destruct I as ([k pn] & E & I). simpl in E. inversion E; subst.
      assert (In n (node_ids tpl)) by (unfold node_ids; change n with (fst (n, pn)); apply in_map; exact I).
      rewrite (mget_id _ n H). destruct (f_nodes _ _ _ F n pn I) as (x & y & Ex & Ey & E1 & _ & E3 & _ & E5 & _). rewrite Ex.
      simpl. rewrite E1, E3, N.eqb_refl, Z.eqb_refl. simpl. apply Z.leb_le. exact E5.
    - intros [[u v] o] I. unfold edge_okb.
      unfold dec_side in I; simpl in I. apply in_flat_map in I. destruct I as ([[p q] x] & I & I').
      destruct (0 <? eG x) eqn:E; [|destruct I']. destruct I' as [I'|[]]. inversion I'; subst.
      destruct (f_edges _ _ _ F u v x I) as (Iu & Iv & Eg & Eh). rewrite (mget_id _ u Iu), (mget_id _ v Iv).
      apply Z.ltb_lt in E. rewrite Eg in E. unfold order_in in E, Eg. destruct (adj A u v) as [o|]; [|lia]. apply Z.eqb_eq. congruence.
  Qed.
  Lemma fits_glue_some : fits A B tpl -> pair_wf A B -> exists T, glue A tpl m = Some T.
  Proof.
    intros F PW. pose proof (rule_aut_id tpl (f_wf _ _ _ F)) as RA.
    pose proof (fits_match_rc F) as Hm. unfold m in *. rewrite <- aut_map_id in *.
    exact (m_glue_some A B tpl _ (aut_ME A B tpl _ _ F RA) PW (f_wf _ _ _ F) Hm).
  Qed.
  Theorem identity_regen : pair_wf A B -> describes A B tpl ->
    match_rcb A tpl m = true /\ exists T, glue A tpl m = Some T /\ regen_exact T A B = true.
  Proof. intros PW D. unfold m. rewrite <- aut_map_id. exact (aut_regen A B tpl _ _ PW D (rule_aut_id tpl (d_wf _ _ _ D))). Qed.
End Identity.

Lemma node_fitb_sound a x y : node_fitb a x y = true -> node_fit a x y.
Proof.
  unfold node_fitb, node_fit. intros H.
  apply andb_prop in H. destruct H as [H H6]. apply andb_prop in H. destruct H as [H H5]. apply andb_prop in H. destruct H as [H H4].
  apply andb_prop in H. destruct H as [H H3]. apply andb_prop in H. destruct H as [H1 H2].
  apply N.eqb_eq in H1. apply N.eqb_eq in H2. apply Z.eqb_eq in H3. apply Z.eqb_eq in H4. apply Z.leb_le in H5. apply Z.eqb_eq in H6.
  auto 10.
Qed.

Lemma describesb_sound A B t : pair_wf A B -> describesb A B t = true -> describes A B t.
Proof.
  intros PW H. unfold describesb in H.
  apply andb_prop in H. destruct H as [H H6]. apply andb_prop in H. destruct H as [H H5]. apply andb_prop in H. destruct H as [H H4].
  apply andb_prop in H. destruct H as [H H3]. apply andb_prop in H. destruct H as [H1 H2].
  pose proof (pw_A _ _ PW) as HA. pose proof (pw_B _ _ PW) as HB.
  constructor; [constructor|..].
  - exact H1.
  - intros n a I. eapply forallb_elim in H2; [|exact I]. simpl in H2. destruct (label A n) as [x|]; [|discriminate].
    destruct (label B n) as [y|]; [|discriminate]. exists x, y. split; [reflexivity|]. split; [reflexivity|]. apply node_fitb_sound. exact H2.
  - intros u v x I. eapply forallb_elim in H3; [|exact I]. simpl in H3.
    apply andb_prop in H3. destruct H3 as [H3 E4]. apply andb_prop in H3. destruct H3 as [H3 E3]. apply andb_prop in H3. destruct H3 as [E1 E2].
    repeat split; [apply mem_spec; exact E1|apply mem_spec; exact E2|apply Z.eqb_eq; exact E3|apply Z.eqb_eq; exact E4].
  - intros u v NE.
    assert (K : forall (X Y : hostg), wf_hostb X = true ->
              (forall e, In e (gedges X) -> (let '(p, q, o) := e in Z.eqb o (order_in Y p q) || has_adj t p q) = true) ->
              forall o, adj X u v = Some o -> order_in X u v <> order_in Y u v -> exists x, adj t u v = Some x).
    { intros X Y HX HF o Ea NE'. pose proof Ea as Ea'. unfold adj in Ea. apply find_edge_in in Ea. destruct Ea as (p & q & I & Hp).
      specialize (HF _ I). simpl in HF. apply orb_prop in HF. destruct HF as [HF|HF].
      - exfalso. apply Z.eqb_eq in HF. apply NE'. unfold order_in at 1. rewrite Ea'. rewrite HF. apply order_in_peq. exact Hp.
      - unfold has_adj in HF. destruct (adj t p q) as [x|] eqn:Et; [|discriminate]. exists x.
        unfold adj in *. rewrite <- (find_edge_peq (gedges t) p q u v Hp). exact Et. }
    destruct (adj A u v) as [o|] eqn:Ea.
    + exact (K A B HA (fun e => forallb_elim _ _ e H4) o Ea NE).
    + destruct (adj B u v) as [o|] eqn:Eb.
      * exact (K B A HB (fun e => forallb_elim _ _ e H5) o Eb (not_eq_sym NE)).
      * exfalso. apply NE. unfold order_in. rewrite Ea, Eb. reflexivity.
  - intros n x y Ex Ey NE. eapply forallb_elim in H6; [|exact (assoc_in n (gnodes A) Ex)]. simpl in H6. rewrite Ey in H6.
    apply orb_prop in H6. destruct H6 as [H6|H6]; [|apply mem_spec; exact H6]. exfalso. apply NE.
    unfold same3 in H6. apply andb_prop in H6. destruct H6 as [H6 E3]. apply andb_prop in H6. destruct H6 as [E1 E2].
    apply N.eqb_eq in E1. apply Z.eqb_eq in E2. apply Z.eqb_eq in E3. unfold sel. congruence.
Qed.

(** for ANY rule that describes the pair (A, B) -- whatever prepared it -- the identity is a valid match on A and gluing
    along it gives an ITS that decomposes to (A, B) *)
Theorem glue_any_rule (A B : hostg) (rc : its) :
  pair_wfb A B = true -> describesb A B rc = true ->
  match_rcb A rc (id_map (node_ids rc)) = true /\
  exists T : its, glue A rc (id_map (node_ids rc)) = Some T /\ regen_exact T A B = true.
Proof.
  intros W Hd. destruct (pair_wfb_sound A B W) as (PW & _ & _).
  exact (identity_regen A B rc PW (describesb_sound A B rc PW Hd)).
Qed.

(** ... and so does the identity composed with any symmetry of that rule (what the pruning may keep instead) *)
Theorem glue_any_rule_symmetric (A B : hostg) (rc : its) (s s' : N -> N) :
  pair_wfb A B = true -> describesb A B rc = true -> rule_aut rc s s' ->
  match_rcb A rc (aut_map rc s) = true /\
  exists T : its, glue A rc (aut_map rc s) = Some T /\ regen_exact T A B = true.
Proof.
  intros W Hd RA. destruct (pair_wfb_sound A B W) as (PW & _ & _).
  exact (aut_regen A B rc s s' PW (describesb_sound A B rc PW Hd) RA).
Qed.
