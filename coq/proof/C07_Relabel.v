(** C07 — injective renaming of a graph: what it does to nodes, labels, adjacency and well-formedness, and the invariance of embeddings,
    containment and isomorphism under it.  Stdlib lists. *)
From Coq Require Import List NArith Bool Permutation.
From SK Require Import lib.LGraph lib.C01_GraphLemmas model.C07_Model proof.C07_Spec proof.C07_Filters proof.C07_Main.
Import ListNotations.

Definition inj_on (r : N -> N) (dom : list N) : Prop := forall a b, In a dom -> In b dom -> r a = r b -> a = b.

Definition grelabel (r : N -> N) (g : graph) : graph := LGraph.relabel r g.

Section Relabel.
Variables (r : N -> N) (g : graph).
Hypothesis W : gwf g.
Hypothesis Rinj : inj_on r (node_ids g).

Lemma node_ids_relabel : node_ids (grelabel r g) = map r (node_ids g).
Proof. unfold node_ids, grelabel, relabel. simpl. rewrite !map_map. reflexivity. Qed.

Lemma eqb_inj a u : In a (node_ids g) -> In u (node_ids g) -> N.eqb (r a) (r u) = N.eqb a u.
Proof.
  intros Ia Iu. destruct (N.eqb_spec a u) as [->|Hne]; [apply N.eqb_refl|].
  apply N.eqb_neq. intros E. apply Hne. apply Rinj; auto.
Qed.

Lemma assoc_relabel (l : list (N * attrs)) u : incl (map fst l) (node_ids g) -> In u (node_ids g) ->
  assoc (r u) (map (fun p => (r (fst p), snd p)) l) = assoc u l.
Proof.
  induction l as [|[k v] l IH]; simpl; intros Hin Iu; [reflexivity|].
  assert (Ik : In k (node_ids g)) by (apply Hin; left; reflexivity).
  rewrite (N.eqb_sym (r u)), (eqb_inj k u Ik Iu), (N.eqb_sym k u).
  destruct (N.eqb u k); [reflexivity|]. apply IH; auto. intros x Ix. apply Hin. right. exact Ix.
Qed.

Lemma nlabel_relabel u : In u (node_ids g) -> nlabel (grelabel r g) (r u) = nlabel g u.
Proof.
  intros Iu. unfold nlabel, label, grelabel, relabel. simpl. rewrite assoc_relabel; auto. apply incl_refl.
Qed.

Definition re (e : N * N * attrs) : N * N * attrs := let '(a, b, x) := e in (r a, r b, x).

Lemma find_edge_relabel es u v :
  (forall a b x, In (a, b, x) es -> In a (node_ids g) /\ In b (node_ids g)) -> In u (node_ids g) -> In v (node_ids g) ->
  find_edge (r u) (r v) (map re es) = find_edge u v es.
Proof.
  intros Hes Iu Iv. induction es as [|[[a b] x] es IH]; simpl; [reflexivity|].
  destruct (Hes a b x (or_introl eq_refl)) as (Ia & Ib).
  rewrite (eqb_inj a u Ia Iu), (eqb_inj b v Ib Iv), (eqb_inj a v Ia Iv), (eqb_inj b u Ib Iu).
  destruct ((N.eqb a u && N.eqb b v) || (N.eqb a v && N.eqb b u)); [reflexivity|].
  apply IH. intros a' b' x' I. apply (Hes a' b' x'). right. exact I.
Qed.

Lemma gedges_relabel : gedges (grelabel r g) = map re (gedges g).
Proof. reflexivity. Qed.

Lemma wf_endpoints a b x : In (a, b, x) (gedges g) -> In a (node_ids g) /\ In b (node_ids g).
Proof. intros I. destruct W as (_ & W2 & _). destruct (W2 a b x I) as (A & B & _). auto. Qed.

Lemma adj_relabel u v : In u (node_ids g) -> In v (node_ids g) -> LGraph.adj (grelabel r g) (r u) (r v) = LGraph.adj g u v.
Proof. intros Iu Iv. unfold LGraph.adj. rewrite gedges_relabel. apply find_edge_relabel; auto. apply wf_endpoints. Qed.

Lemma n_nodes_relabel : n_nodes (grelabel r g) = n_nodes g.
Proof. unfold n_nodes, grelabel, relabel. simpl. apply map_length. Qed.

Lemma n_edges_relabel : n_edges (grelabel r g) = n_edges g.
Proof. unfold n_edges, grelabel, relabel. simpl. apply map_length. Qed.

Lemma simple_relabel_on es : simple es -> (forall a b x, In (a, b, x) es -> In a (node_ids g) /\ In b (node_ids g)) -> simple (map re es).
Proof.
  induction 1 as [|a b x es Hn Hs IH]; intros Hes; simpl; constructor.
  - destruct (Hes a b x (or_introl eq_refl)). rewrite find_edge_relabel; auto. intros a' b' x' I. apply (Hes a' b' x'). right. exact I.
  - apply IH. intros a' b' x' I. apply (Hes a' b' x'). right. exact I.
Qed.

Lemma gwf_relabel : gwf (grelabel r g).
Proof.
  apply wf_intro.
  - rewrite node_ids_relabel. apply NoDup_map_inj_in; [apply gwf_nodup, W | exact Rinj].
  - intros a' b' x I. rewrite gedges_relabel in I. apply in_map_iff in I. destruct I as ([[a b] y] & E & I).
    simpl in E. inversion E; subst. destruct (wf_edge_nodes W I) as (Ia & Ib & Hne). rewrite node_ids_relabel.
    split; [apply in_map; auto|]. split; [apply in_map; auto|]. intros E'. apply Hne. apply Rinj; auto.
  - apply simple_relabel_on; [apply wf_simple, W | apply wf_endpoints].
Qed.

Lemma relabel_back : grelabel (finv r (node_ids g)) (grelabel r g) = g.
Proof.
  assert (Hl : forall u, In u (node_ids g) -> finv r (node_ids g) (r u) = u) by (intros u Iu; apply finv_l; auto).
  pose proof wf_endpoints as We. revert Hl We. unfold grelabel, relabel, node_ids. destruct g as [ns es]. simpl. intros Hl We.
  f_equal; rewrite map_map.
  - rewrite <- (map_id ns) at 2. apply map_ext_in. intros [k v] I. simpl. rewrite Hl; auto.
    change k with (fst (k, v)). apply in_map. exact I.
  - rewrite <- (map_id es) at 2. apply map_ext_in. intros [[a b] x] I. destruct (We a b x I) as (Ia & Ib).
    rewrite !Hl; auto.
Qed.

Lemma finv_inj_on_image : inj_on (finv r (node_ids g)) (node_ids (grelabel r g)).
Proof.
  rewrite node_ids_relabel. intros a b Ia Ib E. apply in_map_iff in Ia. apply in_map_iff in Ib.
  destruct Ia as (a0 & <- & Ia). destruct Ib as (b0 & <- & Ib). rewrite !finv_l in E; auto. congruence.
Qed.
End Relabel.

(** a property of graphs that every injective renaming preserves is invariant: rename back with the inverse *)
Lemma relabel_iff (Q : graph -> Prop) r g : gwf g -> inj_on r (node_ids g) ->
  (forall r' g', gwf g' -> inj_on r' (node_ids g') -> Q g' -> Q (grelabel r' g')) -> (Q (grelabel r g) <-> Q g).
Proof.
  intros W Ri HQ. split; [|apply HQ; auto]. intros A. rewrite <- (relabel_back r g W Ri).
  apply HQ; [apply gwf_relabel | apply finv_inj_on_image |]; auto.
Qed.

Lemma emb_relabel_host ind nm em H P r f : gwf H -> inj_on r (node_ids H) ->
  emb ind nm em H P f -> emb ind nm em (grelabel r H) P (fun u => r (f u)).
Proof.
  intros WH Ri (E1 & E2 & E3). split; [|split].
  - intros u Iu. destruct (E1 u Iu) as (Ih & Hn). rewrite node_ids_relabel, nlabel_relabel; auto. split; auto. apply in_map. exact Ih.
  - intros u v Iu Iv E. apply E2; auto. apply Ri; auto; [apply E1; auto | apply E1; auto].
  - intros u v Iu Iv Hne. rewrite adj_relabel; auto; [apply E3; auto | apply E1; auto | apply E1; auto].
Qed.

Lemma emb_relabel_pat ind nm em H P r f : gwf P -> inj_on r (node_ids P) ->
  emb ind nm em H P f -> emb ind nm em H (grelabel r P) (fun u' => f (finv r (node_ids P) u')).
Proof.
  intros WP Ri (E1 & E2 & E3).
  assert (Hl : forall u, In u (node_ids P) -> finv r (node_ids P) (r u) = u) by (intros u Iu; apply finv_l; auto).
  assert (Hd : forall u', In u' (node_ids (grelabel r P)) -> exists u, u' = r u /\ In u (node_ids P)).
  { intros u' Iu'. rewrite node_ids_relabel in Iu'. apply in_map_iff in Iu'. destruct Iu' as (u & <- & Iu). eauto. }
  split; [|split].
  - intros u' Iu'. destruct (Hd u' Iu') as (u & -> & Iu). rewrite Hl, nlabel_relabel; auto.
  - intros u' v' Iu' Iv'. destruct (Hd u' Iu') as (u & -> & Iu). destruct (Hd v' Iv') as (v & -> & Iv).
    rewrite !Hl; auto. intros E. f_equal. apply E2; auto.
  - intros u' v' Iu' Iv'. destruct (Hd u' Iu') as (u & -> & Iu). destruct (Hd v' Iv') as (v & -> & Iv).
    rewrite !Hl, adj_relabel; auto. intros Hne. apply E3; auto. congruence.
Qed.

Lemma contained_relabel_host_iff ind nm em H P r : gwf H -> inj_on r (node_ids H) ->
  (contained ind nm em (grelabel r H) P <-> contained ind nm em H P).
Proof.
  intros WH Ri. apply (relabel_iff (fun H => contained ind nm em H P)); auto.
  intros r' g' W' Ri' (f & He). eexists. apply emb_relabel_host; eauto.
Qed.

Lemma contained_relabel_pat_iff ind nm em H P r : gwf P -> inj_on r (node_ids P) ->
  (contained ind nm em H (grelabel r P) <-> contained ind nm em H P).
Proof.
  intros WP Ri. apply (relabel_iff (fun P => contained ind nm em H P)); auto.
  intros r' g' W' Ri' (f & He). eexists. apply emb_relabel_pat; eauto.
Qed.

(** an isomorphism is an induced embedding between graphs of equal order, and renaming keeps the order *)
Lemma iso_relabel_host_iff nm em G1 G2 r : gwf G1 -> gwf G2 -> inj_on r (node_ids G1) ->
  ((exists f, iso_map nm em (grelabel r G1) G2 f) <-> (exists f, iso_map nm em G1 G2 f)).
Proof.
  intros W1 W2 Ri. rewrite !iso_iff_contained, n_nodes_relabel, contained_relabel_host_iff; auto using gwf_relabel. reflexivity.
Qed.

Lemma iso_relabel_pat_iff nm em G1 G2 r : gwf G1 -> gwf G2 -> inj_on r (node_ids G2) ->
  ((exists f, iso_map nm em G1 (grelabel r G2) f) <-> (exists f, iso_map nm em G1 G2 f)).
Proof.
  intros W1 W2 Ri. rewrite !iso_iff_contained, n_nodes_relabel, contained_relabel_pat_iff; auto using gwf_relabel. reflexivity.
Qed.
