(** C05 — the decision of the cheap pre-filter (SynReactor(embed_pre_filter=True)) does not depend on HOW the two graphs
    are written: any insertion order of atoms and bonds and any orientation of the stored bonds, of substrate and
    pattern.  The loop multiplies the per-atom candidate counts in the order of the pattern's atoms and leaves early;
    the outcome is nevertheless a function of the MULTISET of counts: "some count is zero, or the whole product exceeds
    cap * 10000".  Each count is a number of substrate atoms with a property that only depends on labels and degrees,
    and the degree of an atom is the number of its neighbours whatever the order of the bond list (simple bond lists). *)
From Coq Require Import List ZArith Bool Lia Permutation.
From SK Require Import lib.LGraph lib.C01_GraphLemmas.
From SK Require Import proof.C06_Prefilter.
From SK Require Import model.C03_Model model.C05_Model proof.C05_Proof proof.C05_Pipe proof.C05_Order proof.C05_Sub proof.C05_Prefilter.
From SK Require Import proof.C05_Set proof.C05_AnyCap.
Import ListNotations.
Local Open Scope N_scope.

(** ** the loop as a function of the list of counts *)
Fixpoint qpf_counts (thr : N) (cs : list N) (est : N) : bool :=
  match cs with
  | [] => false
  | c :: r => if (c =? 0) then true else let e := est * c in if (thr * 10000 <? e) then true else qpf_counts thr r e
  end.

Lemma qpf_loop_counts H P thr ps : forall est,
  C06_Model.qpf_loop H P thr ps est = qpf_counts thr (map (cnt H P) ps) est.
Proof.
  induction ps as [|p ps IH]; intros est; [reflexivity|].
  cbn [map C06_Model.qpf_loop qpf_counts]. fold (cnt H P p). cbv zeta.
  destruct (cnt H P p =? 0); [reflexivity|]. destruct (thr * 10000 <? est * cnt H P p); [reflexivity | apply IH].
Qed.

Definition prodN (cs : list N) : N := fold_right N.mul 1 cs.
Definition has0 (cs : list N) : bool := existsb (fun c => c =? 0) cs.

Lemma prodN_pos cs : has0 cs = false -> 1 <= prodN cs.
Proof.
  induction cs as [|c r IH]; simpl; [lia|]. intros H. apply orb_false_iff in H. destruct H as [Hc Hr].
  apply N.eqb_neq in Hc. specialize (IH Hr). nia.
Qed.

Lemma qpf_counts_spec thr cs : forall est, 1 <= est -> est <= thr * 10000 ->
  qpf_counts thr cs est = has0 cs || (thr * 10000 <? est * prodN cs).
Proof.
  induction cs as [|c r IH]; intros est He Hl; simpl.
  - rewrite N.mul_1_r. symmetry. apply N.ltb_ge. exact Hl.
  - destruct (N.eqb_spec c 0) as [->|Hc]; [reflexivity|]. simpl.
    destruct (N.ltb_spec (thr * 10000) (est * c)) as [Hlt|Hge].
    + symmetry. destruct (has0 r) eqn:E0; [reflexivity|]. simpl.
      apply N.ltb_lt. pose proof (prodN_pos r E0). nia.
    + rewrite IH by nia. rewrite N.mul_assoc. reflexivity.
Qed.

(** the call the pre-filter makes (est = 1; the first factor is tested against the limit before anything else) *)
Lemma qpf_counts_spec1 thr cs :
  qpf_counts thr cs 1 = match cs with [] => false | _ => has0 cs || (thr * 10000 <? prodN cs) end.
Proof.
  destruct cs as [|c r]; [reflexivity|]. cbn [qpf_counts has0 existsb prodN fold_right].
  destruct (N.eqb_spec c 0) as [->|Hc]; [reflexivity|]. rewrite N.mul_1_l. cbv zeta. simpl orb.
  destruct (N.ltb_spec (thr * 10000) c) as [Hlt|Hge].
  - symmetry. fold (has0 r). destruct (has0 r) eqn:E0; [reflexivity|]. simpl.
    apply N.ltb_lt. pose proof (prodN_pos r E0). fold (prodN r). nia.
  - rewrite qpf_counts_spec by lia. reflexivity.
Qed.

Lemma has0_perm cs cs' : Permutation cs cs' -> has0 cs = has0 cs'.
Proof.
  induction 1 as [|x l l' HP IH|x y l|l l' l'' HP1 IH1 HP2 IH2]; simpl.
  - reflexivity.
  - fold (has0 l) (has0 l'). rewrite IH. reflexivity.
  - destruct (y =? 0), (x =? 0); reflexivity.
  - congruence.
Qed.
Lemma prodN_perm cs cs' : Permutation cs cs' -> prodN cs = prodN cs'.
Proof.
  induction 1 as [|x l l' HP IH|x y l|l l' l'' HP1 IH1 HP2 IH2]; simpl.
  - reflexivity.
  - fold (prodN l) (prodN l'). rewrite IH. reflexivity.
  - fold (prodN l). lia.
  - congruence.
Qed.

Lemma qpf_counts_perm thr cs cs' : Permutation cs cs' -> qpf_counts thr cs 1 = qpf_counts thr cs' 1.
Proof.
  intros HP. rewrite !qpf_counts_spec1.
  destruct cs as [|c r]; [apply Permutation_nil in HP; subst; reflexivity|].
  destruct cs' as [|c' r']; [apply Permutation_sym, Permutation_nil in HP; discriminate|].
  rewrite (has0_perm _ _ HP), (prodN_perm _ _ HP). reflexivity.
Qed.

(** ** the counts do not depend on the writing *)
Lemma filter_len_ext {X} (p q : X -> bool) (l : list X) : (forall x, p x = q x) -> length (filter p l) = length (filter q l).
Proof. intros E. induction l as [|x r IH]; simpl; [reflexivity|]. rewrite E. destruct (q x); simpl; rewrite IH; reflexivity. Qed.

Lemma filter_len_perm {X} (p q : X -> bool) (l l' : list X) :
  Permutation l l' -> (forall x, p x = q x) -> length (filter p l) = length (filter q l').
Proof.
  intros HP E. rewrite (filter_len_ext p q l E). clear E p.
  induction HP as [|x l l' HP IH|x y l|l l' l'' HP1 IH1 HP2 IH2]; simpl.
  - reflexivity.
  - destruct (q x); simpl; rewrite IH; reflexivity.
  - destruct (q x), (q y); reflexivity.
  - congruence.
Qed.

Lemma degree_same (g g' : C06_Model.graph) u : LGraph.wf g -> LGraph.wf g' ->
  (forall a b, LGraph.adj g' a b = LGraph.adj g a b) -> C06_Model.degree g' u = C06_Model.degree g u.
Proof.
  intros W W' A. unfold C06_Model.degree, C06_Model.lenN. f_equal. apply nodup_same_length.
  - apply nbrs_nodup. exact W'.
  - apply nbrs_nodup. exact W.
  - intros v. rewrite !in_nbrs, A. tauto.
Qed.

Section WithThr.
Context {TH : Thr}.

Lemma cnt_same (H H' P P' : C06_Model.graph) p :
  same_c06 H H' -> same_c06 P P' -> LGraph.wf H -> LGraph.wf H' -> LGraph.wf P -> LGraph.wf P' ->
  cnt H' P' p = cnt H P p.
Proof.
  intros (Hl & Ha & Hi & Hn & Hn') (Pl & Pa & _) WH WH' WP WP'. unfold cnt, C06_Model.lenN. f_equal.
  apply filter_len_perm.
  - apply NoDup_Permutation; [exact Hn' | exact Hn | intros x; symmetry; apply Hi].
  - intros h. rewrite Hl, Pl, (degree_same P P' p WP WP' Pa), (degree_same H H' h WH WH' Ha). reflexivity.
Qed.

Theorem quick_pre_filter_any_order (H H' P P' : C06_Model.graph) thr :
  same_c06 H H' -> same_c06 P P' -> LGraph.wf H -> LGraph.wf H' -> LGraph.wf P -> LGraph.wf P' ->
  C06_Model.quick_pre_filter H' P' thr = C06_Model.quick_pre_filter H P thr.
Proof.
  intros SH SP WH WH' WP WP'. unfold C06_Model.quick_pre_filter. rewrite !qpf_loop_counts.
  apply qpf_counts_perm.
  destruct SP as (Pl & Pa & Pi & Pn & Pn').
  assert (HP : Permutation (node_ids P') (node_ids P)) by (apply NoDup_Permutation; [exact Pn' | exact Pn | intros x; symmetry; apply Pi]).
  rewrite (map_ext (cnt H' P') (cnt H P)).
  - apply Permutation_map. exact HP.
  - intros p. apply cnt_same; try assumption. exact (conj Pl (conj Pa (conj Pi (conj Pn Pn')))).
Qed.

(** at the level of the reactor's graphs *)
Theorem prefilter_fires_any_order (host host' : hostg) (p p' : prepared) :
  same_graph host host' -> same_graph (p_pat p) (p_pat p') ->
  LGraph.wf (host_c06 host) -> LGraph.wf (host_c06 host') -> LGraph.wf (pat_c06 (p_pat p)) -> LGraph.wf (pat_c06 (p_pat p')) ->
  prefilter_fires host' p' = prefilter_fires host p.
Proof.
  intros Hh Hp W1 W2 W3 W4. unfold prefilter_fires.
  apply quick_pre_filter_any_order; try assumption; [apply same_graph_c06 | apply same_graph_c06_pat]; assumption.
Qed.

(** ** the set-level invariance of the exhaustive strategy under the option, every cap, any rewriting of both inputs *)

Theorem glued_set_rewriting_any_cap_pf (pref : bool) (sg pi : N -> N) (Hs : inj sg) (Hp : inj pi)
        (host host'' : hostg) (p p'' : prepared) :
  side_ok0 (relabel pi host) (relabel_prep sg p) -> side_ok0 host'' p'' ->
  LGraph.wf (host_c06 (relabel pi host)) -> LGraph.wf (host_c06 host'') ->
  LGraph.wf (pat_c06 (p_pat (relabel_prep sg p))) -> LGraph.wf (pat_c06 (p_pat p'')) ->
  same_graph (relabel pi host) host'' -> same_graph (relabel sg (p_rc p)) (p_rc p'') ->
  same_graph (relabel sg (p_pat p)) (p_pat p'') ->
  (forall T, In T (glued_of_pf pref 0%N host p) -> exists T'', In T'' (glued_of_pf pref 0%N host'' p'') /\ obs_eq (relabel pi T) T'') /\
  (forall T'', In T'' (glued_of_pf pref 0%N host'' p'') -> exists T, In T (glued_of_pf pref 0%N host p) /\ obs_eq (relabel pi T) T'').
Proof.
  intros S S'' W1 W2 W3 W4 Hh Hr Hpt.
  destruct pref; [|exact (glued_set_rewriting_any_cap sg pi Hs Hp host host'' p p'' S S'' Hh Hr Hpt)].
  rewrite !glued_of_pf_true.
  assert (E : prefilter_fires host'' p'' = prefilter_fires host p).
  { rewrite <- (prefilter_fires_relabel sg pi Hs Hp host p).
    apply prefilter_fires_any_order; try assumption. }
  rewrite E. destruct (prefilter_fires host p).
  - split; intros T [].
  - exact (glued_set_rewriting_any_cap sg pi Hs Hp host host'' p p'' S S'' Hh Hr Hpt).
Qed.


(** ** the same with every premise in the form the run functions evaluate on the two writings themselves *)

Theorem glued_set_any_options_checked (pref : bool) (sg pi : N -> N) (Hs : inj sg) (Hp : inj pi)
        (host0 host : hostg) (p0 p : prepared) :
  side_okb0 host0 p0 = true -> side_okb0 host p = true ->
  C06_Model.wfb (host_c06 host0) = true -> C06_Model.wfb (host_c06 host) = true ->
  C06_Model.wfb (pat_c06 (p_pat p0)) = true -> C06_Model.wfb (pat_c06 (p_pat p)) = true ->
  same_graph (relabel pi host0) host -> same_graph (relabel sg (p_rc p0)) (p_rc p) -> same_graph (relabel sg (p_pat p0)) (p_pat p) ->
  (forall T, In T (glued_of_pf pref 0%N host0 p0) -> exists T', In T' (glued_of_pf pref 0%N host p) /\ obs_eq (relabel pi T) T') /\
  (forall T', In T' (glued_of_pf pref 0%N host p) -> exists T, In T (glued_of_pf pref 0%N host0 p0) /\ obs_eq (relabel pi T) T').
Proof.
  intros B0 B W1 W2 W3 W4 Hh Hr Hpt.
  apply (glued_set_rewriting_any_cap_pf pref sg pi Hs Hp host0 host p0 p); try assumption.
  - apply side_ok0_relabel; [assumption | assumption | apply side_okb0_ok; exact B0].
  - apply side_okb0_ok. exact B.
  - rewrite host_c06_relabel. apply C01_GraphLemmas.wf_relabel; [exact Hp|]. apply C06_Main.wfb_spec. exact W1.
  - apply C06_Main.wfb_spec. exact W2.
  - destruct p0 as [rc l r fl pat]. cbn [relabel_prep p_pat] in *. rewrite pat_c06_relabel.
    apply C01_GraphLemmas.wf_relabel; [exact Hs|]. apply C06_Main.wfb_spec. exact W3.
  - apply C06_Main.wfb_spec. exact W4.
Qed.

End WithThr.
