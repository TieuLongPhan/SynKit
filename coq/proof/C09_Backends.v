(** C09 — numbering / atom-order / bond-order independence of [canonicalise_wl] and [canonicalise_nauty] for presentations up
    to node order, bond order and bond orientation (proof/C09_Graph.v), at graph level and for the string [canonical_rsmi]
    relative to explicit contracts of the RDKit writer and parser (the fixed point: proof/C09_WLFix.v, proof/C09_NautyFix2.v). *)
From Coq Require Import List NArith ZArith Bool Arith Lia Permutation.
From SK Require Import lib.StrJoin lib.LGraph lib.C01_GraphLemmas model.C01_Model model.C09_Model model.C09_Strings
  proof.C09_Lists proof.C09_Canon proof.C09_Equiv proof.C09_Main proof.C09_Indep proof.C09_WL
  proof.C09_NautyRigid proof.C09_Nauty proof.C09_Graph.
From SK Require model.C08_Model proof.C08_Spec.
Import ListNotations.

(** * wl *)
Theorem numbering_independent_wl_sg (ranks1 ranks2 : list (N * Z)) (G H G' H' : mgraph) (p : N -> N) :
  parsed G -> parsed H -> shares_atom G H ->
  (forall a b, p a = p b -> a = b) ->
  keeps_extra_order p G H ->
  parsed G' -> parsed H' -> presents p G G' -> presents p H H' ->
  (forall n, In n (node_ids G) -> C08_Model.rank_of ranks2 (p n) = C08_Model.rank_of ranks1 n) -> ranks_distinct ranks1 G ->
  exists (pairs1 pairs2 : list (N * N)) (Gc1 Gc2 Hc1 Hc2 : mgraph),
    canonicalise_wl ranks1 G H = Some (Gc1, pairs1, Hc1) /\
    canonicalise_wl ranks2 G' H' = Some (Gc2, pairs2, Hc2) /\
    same_graph Gc2 Gc1 /\ same_graph Hc2 Hc1.
Proof.
  intros PG PH Hs Pinj Pmono PG2 PH2 RG2 RH2 Hr Hd. pose proof PG as (WG & _). pose proof PG2 as (WG2 & _).
  pose proof (wl_enumerates ranks1 G WG) as En1. pose proof (wl_enumerates ranks2 G' WG2) as En2.
  unfold canonicalise_wl.
  apply (presentation_independent_sg_mono G H G' H' _ _ (wl_order ranks1 G) (wl_order ranks2 G') p PG PH Hs Pinj Pmono PG2 PH2 RG2 RH2
           En1 (rebuild_relabelled _ G WG En1) En2 (rebuild_relabelled _ _ WG2 En2)).
  intros n _. apply (wl_invariance_sg ranks1 ranks2 G G' p Pinj WG RG2 Hr Hd).
Qed.

(** * nauty *)
Theorem numbering_independent_nauty_sg (G H G' H' : mgraph) (p : N -> N) :
  parsed G -> parsed H -> shares_atom G H ->
  (forall a b, p a = p b -> a = b) ->
  keeps_extra_order p G H ->
  parsed G' -> parsed H' -> presents p G G' -> presents p H H' ->
  C08_Spec.els_ok (to_c08 G) -> rigid (to_c08 G) ->
  exists (pairs1 pairs2 : list (N * N)) (Gc1 Gc2 Hc1 Hc2 : mgraph),
    canonicalise_nauty G H = Some (Gc1, pairs1, Hc1) /\
    canonicalise_nauty G' H' = Some (Gc2, pairs2, Hc2) /\
    same_graph Gc2 Gc1 /\ same_graph Hc2 Hc1.
Proof.
  intros PG PH Hs Pinj Pmono PG2 PH2 RG2 RH2 Eg Hr. pose proof PG as (WG & _). pose proof PG2 as (WG2 & _).
  pose proof (nauty_enumerates G WG) as En1. pose proof (nauty_enumerates G' WG2) as En2.
  unfold canonicalise_nauty.
  apply (presentation_independent_sg_mono G H G' H' _ _ (nauty_order G) (nauty_order G') p PG PH Hs Pinj Pmono PG2 PH2 RG2 RH2
           En1 (relabelled_exact _ G) En2 (relabelled_exact _ G')).
  intros n _. apply (nauty_invariance_sg G G' p Pinj WG WG2 RG2 Eg Hr).
Qed.

(** * string level: canonical_rsmi = W(canonical reactant graph) ++ ">>" ++ W(canonical product graph) *)
(** contract of the writer graph_to_smi (GraphToMol + RDKit canonical SMILES): a function of the graph, not of the order in
    which atoms and bonds are listed *)
Definition writer_ok (W : mgraph -> str) : Prop := forall X Y, same_graph X Y -> W X = W Y.

(** two runs that return the same graphs up to listing order give the same string *)
Lemma canonical_rsmi_same (W : mgraph -> str) r r' : writer_ok W ->
  (exists (pairs1 pairs2 : list (N * N)) (Gc1 Gc2 Hc1 Hc2 : mgraph),
     r = Some (Gc1, pairs1, Hc1) /\ r' = Some (Gc2, pairs2, Hc2) /\ same_graph Gc2 Gc1 /\ same_graph Hc2 Hc1) ->
  exists s, canonical_rsmi W r = Some s /\ canonical_rsmi W r' = Some s.
Proof.
  intros HW (pairs1 & pairs2 & Gc1 & Gc2 & Hc1 & Hc2 & -> & -> & S1 & S2). exists (W Gc1 ++ GG ++ W Hc1).
  split; [reflexivity|]. unfold canonical_rsmi. rewrite (HW _ _ S1), (HW _ _ S2). reflexivity.
Qed.

Theorem canonical_rsmi_independent_nauty (W : mgraph -> str) (G H G' H' : mgraph) (p : N -> N) :
  writer_ok W ->
  parsed G -> parsed H -> shares_atom G H ->
  (forall a b, p a = p b -> a = b) ->
  keeps_extra_order p G H ->
  parsed G' -> parsed H' -> presents p G G' -> presents p H H' ->
  C08_Spec.els_ok (to_c08 G) -> rigid (to_c08 G) ->
  exists s, canonical_rsmi W (canonicalise_nauty G H) = Some s /\ canonical_rsmi W (canonicalise_nauty G' H') = Some s.
Proof.
  intros HW PG PH Hs Pinj Pmono PG2 PH2 RG2 RH2 Eg Hr. apply (canonical_rsmi_same W _ _ HW).
  apply (numbering_independent_nauty_sg G H G' H' p PG PH Hs Pinj Pmono PG2 PH2 RG2 RH2 Eg Hr).
Qed.

Theorem canonical_rsmi_independent_wl (W : mgraph -> str) (ranks1 ranks2 : list (N * Z)) (G H G' H' : mgraph) (p : N -> N) :
  writer_ok W ->
  parsed G -> parsed H -> shares_atom G H ->
  (forall a b, p a = p b -> a = b) ->
  keeps_extra_order p G H ->
  parsed G' -> parsed H' -> presents p G G' -> presents p H H' ->
  (forall n, In n (node_ids G) -> C08_Model.rank_of ranks2 (p n) = C08_Model.rank_of ranks1 n) -> ranks_distinct ranks1 G ->
  exists s, canonical_rsmi W (canonicalise_wl ranks1 G H) = Some s /\ canonical_rsmi W (canonicalise_wl ranks2 G' H') = Some s.
Proof.
  intros HW PG PH Hs Pinj Pmono PG2 PH2 RG2 RH2 Hrk Hd. apply (canonical_rsmi_same W _ _ HW).
  apply (numbering_independent_wl_sg ranks1 ranks2 G H G' H' p PG PH Hs Pinj Pmono PG2 PH2 RG2 RH2 Hrk Hd).
Qed.

(** contract of the parser on the canonical string (rsmi_to_graph (expand_aam s)): it returns parsed graphs that are the
    written graphs up to atom / bond order *)
Definition reads_back (W : mgraph -> str) (P : str -> option (mgraph * mgraph)) (X Y : mgraph) : Prop :=
  exists X' Y', P (W X ++ GG ++ W Y) = Some (X', Y') /\ parsed X' /\ parsed Y' /\ same_graph X' X /\ same_graph Y' Y.

(** * Non-vacuity: CH3Br + OH- >> CH3OH + Br- renumbered 1,2,7 -> 5,6,4, atoms listed in another order and BOTH bonds written
    in the other direction (a presentation that [relabelled_by] does not cover) *)
Definition ex_G' : mgraph :=
  LG [(6%N, GN 17013%N false 0 0 None 6); (5%N, GN 70%N false 3 0 None 5); (4%N, GN 82%N false 1 (-1) None 4)] [(6%N, 5%N, 2%Z)].
Definition ex_H' : mgraph :=
  LG [(4%N, GN 82%N false 1 0 None 4); (5%N, GN 70%N false 3 0 None 5); (6%N, GN 17013%N false 0 (-1) None 6)] [(4%N, 5%N, 2%Z)].
Example ex_presents :
  presents ex_ren ex_G ex_G' /\ presents ex_ren ex_H ex_H' /\ parsed ex_G' /\ parsed ex_H' /\
  gedges ex_G' <> gedges (relabel ex_ren ex_G) /\ ~ relabelled_by ex_ren ex_G ex_G'.
Proof.
  split; [|split; [|split; [apply parsedb_sound; reflexivity|split; [apply parsedb_sound; reflexivity|split]]]].
  - split; vm_compute; [apply perm_swap|apply Permutation_refl].
  - split; vm_compute; [|apply Permutation_refl].
    apply perm_swap.
  - vm_compute. discriminate.
  - intros (_ & E). vm_compute in E. discriminate.
Qed.
(** both back-ends on the two presentations: the canonical graphs coincide up to atom order and bond orientation, and
    they do differ as lists (so [same_upto_order] would not relate them) *)
Example ex_sg_results :
  match canonicalise_nauty ex_G ex_H, canonicalise_nauty ex_G' ex_H', canonicalise_wl ex_ranks1 ex_G ex_H, canonicalise_wl ex_ranks2 ex_G' ex_H' with
  | Some (a, _, b), Some (a', _, b'), Some (c, _, d), Some (c', _, d') =>
      map nflip (gedges a') = map nflip (gedges a) /\ gedges a' <> gedges a /\ map nflip (gedges b') = map nflip (gedges b) /\
      map nflip (gedges c') = map nflip (gedges c) /\ gedges c' <> gedges c /\ map nflip (gedges d') = map nflip (gedges d) /\
      nsort (node_ids a') = nsort (node_ids a) /\ nsort (node_ids b') = nsort (node_ids b)
  | _, _, _, _ => False
  end.
Proof. vm_compute. repeat split; try reflexivity; discriminate. Qed.

(** the writer contract is satisfiable by a function that is not constant (here: numbers of atoms and bonds) *)
Definition ex_W (X : mgraph) : str := [N.of_nat (length (gnodes X)); N.of_nat (length (gedges X))].
Example ex_writer_ok : writer_ok ex_W /\ ex_W ex_G <> ex_W (LG [] []).
Proof.
  split; [|vm_compute; discriminate].
  intros X Y (A & B). unfold ex_W. rewrite (Permutation_length A).
  pose proof (Permutation_length B) as E. rewrite !map_length in E. rewrite E. reflexivity.
Qed.

(** the canonical graphs are themselves parsed graphs (distinct positive ids, atom_map = id): the parser contract
    [reads_back] is satisfiable - e.g. by a parser that returns exactly the written graphs *)
Lemma canonical_graphs_parsed (G H Gc1 : mgraph) (order1 : list N) :
  parsed G -> parsed H -> shares_atom G H ->
  enumerates order1 G -> relabelled_by (sigma_of order1) G Gc1 ->
  exists pairs1 Gc1' Hc1', canonicalise_with Gc1 H = Some (Gc1', pairs1, Hc1') /\ parsed Gc1' /\ parsed Hc1'.
Proof.
  intros PG PH Hs En1 R1.
  destruct (fixed_point_maps G H Gc1 order1 PG PH Hs En1 R1) as (pairs1 & Hc1 & f1 & E1 & P1 & P2 & _).
  exists pairs1, (set_amap Gc1), (set_amap Hc1). auto.
Qed.
Example ex_reads_back :
  exists Gc1 pairs1 Hc1, canonicalise_nauty ex_G ex_H = Some (Gc1, pairs1, Hc1) /\
    reads_back ex_W (fun _ => Some (Gc1, Hc1)) Gc1 Hc1.
Proof.
  pose proof ex_G_parsed as PG. pose proof PG as (WG & _).
  destruct (canonical_graphs_parsed ex_G ex_H (canon_relabel (nauty_order ex_G) ex_G) (nauty_order ex_G) PG ex_H_parsed)
    as (pairs1 & Gc1 & Hc1 & E1 & P1 & P2).
  - exists 1%N. simpl. auto.
  - apply nauty_enumerates. exact WG.
  - apply relabelled_exact.
  - exists Gc1, pairs1, Hc1. split; [exact E1|]. exists Gc1, Hc1. split; [reflexivity|]. split; [exact P1|]. split; [exact P2|]. split; apply sg_refl.
Qed.
