(** C15 — the bulk entry points (model/C15_Bulk.v) are folds of individual additions:
    parse_rxns = one add_rxn_from_str per item, in order, stopping at the first line that raises; add_rxn_from_str = one add_rxn.
    Consequences: the store invariant survives every bulk call (also a failing one), and a successful parse_rxns stores
    exactly one reaction per item — repeated lines and repeated reactions under different rules included. *)
From stdpp Require Import gmap strings sets.
From SK Require Import lib.Tok model.C15_Model model.C15_Ext proof.C15_Proof proof.C15_Ext model.C16_Model
                       proof.C16_StrOrder proof.C16_Reach model.C15_Bulk.
Local Open Scope string_scope.
Local Open Scope list_scope.

Lemma parse_items_nil s dr ps pf : parse_items s [] dr ps pf = (s, None).
Proof. done. Qed.
Lemma parse_items_cons s it items dr ps pf :
  parse_items s (it :: items) dr ps pf =
  match parse_item s it.1 it.2 dr ps pf with
  | (s', None) => parse_items s' items dr ps pf
  | (s', Some e) => (s', Some e)
  end.
Proof.
  unfold parse_items. cbn [foldl]. destruct (parse_item s it.1 it.2 dr ps pf) as [s' [e|]]; [|done].
  induction items as [|it' items IH]; [done|]. cbn [foldl]. exact IH.
Qed.

(** one item = one add_rxn_from_str call, with the rule / suffix arguments parse_rxns chooses *)
Lemma parse_item_is_add_from_str s line ex dr ps pf :
  ∃ rule' ps', parse_item s line ex dr ps pf = add_from_str s line rule' ps'.
Proof.
  unfold parse_item. destruct ex as [r|].
  - destruct (pf && ps); [destruct (bar_rule_search _)|]; eauto.
  - destruct ps; eauto.
Qed.

(** a successful add_rxn_from_str stores exactly one new reaction, at the end, under a fresh id *)
Lemma add_from_str_one s line rule ps s' : add_from_str s line rule ps = (s', None) →
  ∃ e rx, edges s !! e = None ∧ edges s' = <[ e := rx ]> (edges s) ∧ order s' = order s ++ [e].
Proof. apply add_from_str_appends. Qed.

(** NO DEDUPLICATION: a parse_rxns that raises nothing stores one reaction per item, whatever the items are *)
Lemma parse_items_count items : ∀ s dr ps pf s', parse_items s items dr ps pf = (s', None) →
  length (order s') = (length (order s) + length items)%nat ∧ order s `prefix_of` order s'.
Proof.
  induction items as [|it items IH]; intros s dr ps pf s' Hp.
  - rewrite parse_items_nil in Hp. injection Hp as <-. split; [cbn; lia|done].
  - rewrite parse_items_cons in Hp. destruct (parse_item s it.1 it.2 dr ps pf) as [s1 [e|]] eqn:Hi; [done|].
    destruct (parse_item_is_add_from_str s it.1 it.2 dr ps pf) as (rule' & ps' & Heq). rewrite Heq in Hi.
    destruct (add_from_str_one _ _ _ _ _ Hi) as (e & rx & _ & _ & Ho).
    destruct (IH s1 dr ps pf s' Hp) as [Hlen Hpre]. split.
    + rewrite Hlen, Ho, app_length. cbn. lia.
    + etrans; [|exact Hpre]. rewrite Ho. by apply prefix_app_r.
Qed.

Lemma step6_Inv w o : Forall Inv (nets w) → Forall Inv (nets (step6 w o).1.1).
Proof.
  intros Hw. destruct o as [o2|i items dr ps pf|i line rule ps]; cbn [step6].
  - pose proof (step2_Inv w o2 Hw) as H. destruct (step2 w o2) as [[w' er] a]. exact H.
  - cbn. apply Forall_insert; [done|]. apply parse_items_Inv. by apply getn_Inv.
  - cbn. apply Forall_insert; [done|]. apply add_from_str_Inv. by apply getn_Inv.
Qed.
Lemma run6_Inv n k ops : Forall Inv (nets (fold_left (λ w o, (step6 w o).1.1) ops (init_world2 n k))).
Proof.
  assert (∀ w, Forall Inv (nets w) → Forall Inv (nets (fold_left (λ w o, (step6 w o).1.1) ops w))) as H.
  { induction ops as [|o ops IH]; intros w Hw; [done|]. cbn. apply IH. by apply step6_Inv. }
  apply H. cbn. apply Forall_replicate. apply Inv_init.
Qed.

(** a bulk call touches only its target network, never the caller's side objects *)
Lemma step6_frame w o j :
  match o with B2 _ => False | BParse i _ _ _ _ | BAddStr i _ _ _ => j ≠ i end →
  nets (step6 w o).1.1 !! j = nets w !! j ∧ pool (step6 w o).1.1 = pool w.
Proof.
  destruct o as [o2|i items dr ps pf|i line rule ps]; [done| |]; intros Hj; cbn [step6 fst snd nets pool];
    (split; [by apply list_lookup_insert_ne|done]).
Qed.

(** non-vacuity: the same transformation under two rules, a repeated item, a line equal to a stored reaction — five items,
    five reactions; a line without arrow stops the call after the items before it *)
Definition exb_ops : list op6 :=
  [ B2 (OBase (OAdd 0 [("A", 1%Z)] [("B", 1%Z)] "r" None));
    BParse 0 [("A >> B", Some "q"); ("A >> B", Some "R1"); ("A >> B", Some "q"); ("B >> C", None); ("A >> B", None)] "dflt" true false;
    BParse 0 [("C >> D", None); ("no arrow", None); ("D >> E", None)] "r" true false;
    BAddStr 0 "2A + B >> C | rule=R1" None true ].
Definition exb_net : net := getn (nets (fold_left (λ w o, (step6 w o).1.1) exb_ops (init_world2 1 0))) 0.
Example ex_bulk_nonvacuous :
  order exb_net = ["r_1"; "q_1"; "R1_1"; "q_2"; "dflt_1"; "dflt_2"; "r_2"; "R1_2"] ∧
  (step6 (fold_left (λ w o, (step6 w o).1.1) (take 2 exb_ops) (init_world2 1 0)) (BParse 0 [("C >> D", None); ("no arrow", None); ("D >> E", None)] "r" true false)).1.2
    = I 2.
Proof. split; by vm_compute. Qed.
