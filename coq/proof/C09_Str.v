(** C09 — proofs about the string-level model (model/C09_Strings.v): split / join, sorted(), Standardize.standardize_rsmi /
    fit (fragment order, atom order, map numbers, idempotence — relative to explicit contracts of the RDKit oracles). *)
From Coq Require Import List NArith ZArith Bool Arith Lia Permutation.
From SK Require Import lib.StrJoin lib.LGraph model.C01_Model model.C09_Model model.C09_Strings proof.C08_Sort.
From SK Require model.C08_Model proof.C08_Value proof.C09_Lists.
Import ListNotations.

(** * split / join *)
Lemma split_ch_nosep sep x : nosep sep x -> split_ch sep x = [x].
Proof.
  induction x as [|c x IH]; simpl; intros H; [reflexivity|].
  destruct (N.eqb_spec c sep) as [->|Hne]; [exfalso; apply H; left; reflexivity|].
  rewrite IH; [reflexivity|]. intro I; apply H; right; exact I.
Qed.
Lemma split_ch_app sep x rest : nosep sep x -> split_ch sep (x ++ sep :: rest) = x :: split_ch sep rest.
Proof.
  induction x as [|c x IH]; simpl; intros H.
  - rewrite N.eqb_refl. reflexivity.
  - destruct (N.eqb_spec c sep) as [->|Hne]; [exfalso; apply H; left; reflexivity|].
    rewrite IH; [reflexivity|]. intro I; apply H; right; exact I.
Qed.
Lemma split_ch_join sep : forall xs, Forall (nosep sep) xs -> xs <> [] -> split_ch sep (join sep xs) = xs.
Proof.
  induction xs as [|x xs IH]; intros Hx Nx; [congruence|].
  inversion Hx as [|? ? Hx1 Hx2]; subst. destruct xs as [|y ys].
  - simpl. apply split_ch_nosep; auto.
  - change (join sep (x :: y :: ys)) with (x ++ sep :: join sep (y :: ys)).
    rewrite split_ch_app; auto. f_equal. apply IH; auto. discriminate.
Qed.

Lemma split_gg_cons c r :
  split_gg (c :: r) = match r with
                      | d :: r' => if (N.eqb c GT && N.eqb d GT)%bool then [] :: split_gg r' else cons_first c (split_gg r)
                      | [] => [[c]]
                      end.
Proof. destruct r; reflexivity. Qed.
Lemma split_gg_nosep x : nosep GT x -> split_gg x = [x].
Proof.
  induction x as [|c x IH]; intros H; [reflexivity|].
  rewrite split_gg_cons. destruct x as [|d r']; [reflexivity|].
  destruct (N.eqb_spec c GT) as [->|Hne]; [exfalso; apply H; left; reflexivity|].
  cbn [andb]. rewrite IH; [reflexivity|]. intro I; apply H; right; exact I.
Qed.
Lemma split_gg_app a b : nosep GT a -> nosep GT b -> split_gg (a ++ GG ++ b) = [a; b].
Proof.
  intros Ha Hb. induction a as [|c a IH].
  - change ([] ++ GG ++ b) with (GT :: GT :: b). rewrite split_gg_cons. rewrite N.eqb_refl. cbn [andb].
    rewrite split_gg_nosep; auto.
  - change ((c :: a) ++ GG ++ b) with (c :: (a ++ GG ++ b)). rewrite split_gg_cons.
    destruct (a ++ GG ++ b) as [|d r'] eqn:E.
    + exfalso. destruct a; discriminate E.
    + destruct (N.eqb_spec c GT) as [->|Hne]; [exfalso; apply Ha; left; reflexivity|].
      cbn [andb]. rewrite IH; [reflexivity|]. intro I; apply Ha; right; exact I.
Qed.

Lemma join_nosep c sep : forall xs, c <> sep -> Forall (nosep c) xs -> nosep c (join sep xs).
Proof.
  induction xs as [|x xs IH]; intros Hc Hx; [intros []|].
  inversion Hx as [|? ? Hx1 Hx2]; subst. destruct xs as [|y ys]; [exact Hx1|].
  change (join sep (x :: y :: ys)) with (x ++ sep :: join sep (y :: ys)).
  intro I. apply in_app_or in I. destruct I as [I|[I|I]]; [exact (Hx1 I)|congruence|exact (IH Hc Hx2 I)].
Qed.

(** * sorted() on strings *)
Lemma skey_inj : forall x y, skey x = skey y -> x = y.
Proof.
  induction x as [|a x IH]; intros [|b y] E; simpl in E; try discriminate; auto.
  injection E as E1 E2. f_equal; [apply N2Z.inj; exact E1|apply IH; exact E2].
Qed.
Lemma sort_strs_perm l l' : Permutation l l' -> sort_strs l = sort_strs l'.
Proof. intros Hp. apply sort_by_perm_eq; auto. intros; apply skey_inj; auto. Qed.
Lemma sort_strs_permutation l : Permutation (sort_strs l) l.
Proof. apply (sort_by_perm skey). Qed.
Lemma sort_strs_idem l : sort_strs (sort_strs l) = sort_strs l.
Proof. apply sort_strs_perm, sort_strs_permutation. Qed.
Lemma sort_strs_in l x : In x (sort_strs l) <-> In x l.
Proof. apply (sort_by_in skey). Qed.

(** * filter_valid_molecules + writer *)
Definition keep (canon : str -> option str) (f : str) : list str := match canon f with Some c => [c] | None => [] end.
Definition okeep (o : option str) : list str := match o with Some c => [c] | None => [] end.
Lemma valid_frags_eq canon side : valid_frags canon side = flat_map okeep (map canon (split_ch DOT side)).
Proof. unfold valid_frags. induction (split_ch DOT side) as [|f l IH]; simpl; [reflexivity|]. rewrite IH. reflexivity. Qed.
Lemma flat_map_perm {A B} (f : A -> list B) l l' : Permutation l l' -> Permutation (flat_map f l) (flat_map f l').
Proof.
  induction 1; simpl; auto.
  - apply Permutation_app_head; auto.
  - rewrite !app_assoc. apply Permutation_app_tail, Permutation_app_comm.
  - eapply perm_trans; eauto.
Qed.
Lemma is_nil_perm {A} (l l' : list A) : Permutation l l' -> is_nil l = is_nil l'.
Proof.
  intros Hp. destruct l, l'; auto.
  - apply Permutation_nil in Hp. discriminate.
  - apply Permutation_sym, Permutation_nil in Hp. discriminate.
Qed.

Definition frags_ok (l : list str) : Prop := l <> [] /\ Forall (nosep DOT) l /\ Forall (nosep GT) l.
Definition rsmi_of (rs ps : list str) : str := join DOT rs ++ GG ++ join DOT ps.
Lemma GT_ne_DOT : GT <> DOT. Proof. discriminate. Qed.

Lemma std_sides_of canon rs ps : frags_ok rs -> frags_ok ps ->
  std_sides canon (rsmi_of rs ps) = Some (flat_map okeep (map canon rs), flat_map okeep (map canon ps)).
Proof.
  intros (Nr & Dr & Gr) (Np & Dp & Gp). unfold std_sides, rsmi_of.
  rewrite split_gg_app by (apply join_nosep; auto using GT_ne_DOT).
  rewrite !valid_frags_eq, !split_ch_join; auto.
Qed.

(** the standard form depends only on the multiset of canonical fragment strings of each side *)
Theorem standardize_multiset canon rs ps rs' ps' :
  frags_ok rs -> frags_ok ps -> frags_ok rs' -> frags_ok ps' ->
  Permutation (map canon rs) (map canon rs') -> Permutation (map canon ps) (map canon ps') ->
  standardize_rsmi canon (rsmi_of rs ps) = standardize_rsmi canon (rsmi_of rs' ps').
Proof.
  intros Hr Hp Hr' Hp' Pr Pp. unfold standardize_rsmi. rewrite !std_sides_of; auto.
  pose proof (flat_map_perm okeep _ _ Pr) as Qr. pose proof (flat_map_perm okeep _ _ Pp) as Qp.
  rewrite (is_nil_perm _ _ Qr), (is_nil_perm _ _ Qp), (sort_strs_perm _ _ Qr), (sort_strs_perm _ _ Qp). reflexivity.
Qed.

(** fragment order *)
Corollary standardize_fragment_order canon rs ps rs' ps' :
  frags_ok rs -> frags_ok ps -> Permutation rs rs' -> Permutation ps ps' ->
  standardize_rsmi canon (rsmi_of rs ps) = standardize_rsmi canon (rsmi_of rs' ps').
Proof.
  intros Hr Hp Pr Pp.
  assert (T : forall l l', frags_ok l -> Permutation l l' -> frags_ok l').
  { intros l l' (Nl & Dl & Gl) Pl. repeat split.
    - intro E; subst. apply Permutation_sym, Permutation_nil in Pl. auto.
    - eapply Permutation_Forall; eauto.
    - eapply Permutation_Forall; eauto. }
  apply standardize_multiset; eauto using Permutation_map.
Qed.

(** atom order / re-rooting (and, after remove_atom_mapping, map numbers): fragments with the same canonical string *)
Corollary standardize_rewriting canon rs ps rs' ps' :
  frags_ok rs -> frags_ok ps -> frags_ok rs' -> frags_ok ps' ->
  Forall2 (fun f f' => canon f = canon f') rs rs' -> Forall2 (fun f f' => canon f = canon f') ps ps' ->
  standardize_rsmi canon (rsmi_of rs ps) = standardize_rsmi canon (rsmi_of rs' ps').
Proof.
  intros Hr Hp Hr' Hp' Fr Fp.
  assert (T : forall l l', Forall2 (fun f f' => canon f = canon f') l l' -> map canon l = map canon l').
  { induction 1; simpl; congruence. }
  apply standardize_multiset; auto; [rewrite (T _ _ Fr)|rewrite (T _ _ Fp)]; apply Permutation_refl.
Qed.

(** idempotence, relative to the writer contract: a written fragment is read back as itself and contains no '.' / '>' *)
Definition writer_contract (canon : str -> option str) : Prop :=
  forall f c, canon f = Some c -> canon c = Some c /\ nosep DOT c /\ nosep GT c.

Lemma in_flat_okeep (canon : str -> option str) l c : In c (flat_map okeep (map canon l)) -> exists f, canon f = Some c.
Proof.
  induction l as [|f l IH]; simpl; [intros []|]. intros I. apply in_app_or in I. destruct I as [I|I]; auto.
  destruct (canon f) as [c'|] eqn:E; simpl in I; [|contradiction]. destruct I as [<-|[]]. eauto.
Qed.
Lemma flat_okeep_fixed (canon : str -> option str) l : (forall c, In c l -> canon c = Some c) -> flat_map okeep (map canon l) = l.
Proof.
  induction l as [|c l IH]; intros H; simpl; [reflexivity|].
  rewrite (H c) by (left; reflexivity). simpl. f_equal. apply IH. intros; apply H; right; auto.
Qed.

(** the output of standardize_rsmi has its fragments sorted on both sides and nothing RDKit rejects is left *)
Theorem standardize_shape canon s t : standardize_rsmi canon s = SSome t ->
  exists a b, split_gg s = [a; b] /\
    t = join DOT (sort_strs (valid_frags canon a)) ++ GG ++ join DOT (sort_strs (valid_frags canon b)) /\
    valid_frags canon a <> [] /\ valid_frags canon b <> [].
Proof.
  unfold standardize_rsmi, std_sides. destruct (split_gg s) as [|a [|b [|? ?]]]; try discriminate.
  destruct (valid_frags canon a) eqn:Ea; [discriminate|]. destruct (valid_frags canon b) eqn:Eb; [discriminate|].
  cbn [is_nil orb]. intros T. injection T as <-. exists a, b. rewrite Ea, Eb. repeat split; discriminate.
Qed.

(** a side of a standard form: its fragments are written fragments, in sorted order; under the writer contract they are
    read back as themselves *)
Lemma std_side_written (canon : str -> option str) side f : In f (sort_strs (valid_frags canon side)) -> exists g, canon g = Some f.
Proof. intros I. apply (proj1 (sort_strs_in _ _)) in I. rewrite valid_frags_eq in I. apply in_flat_okeep in I. exact I. Qed.
Lemma sort_strs_nonempty l : l <> [] -> sort_strs l <> [].
Proof. intros Ne Z. pose proof (sort_strs_permutation l) as P. rewrite Z in P. apply Permutation_nil in P. auto. Qed.
Lemma std_side_ok canon side : writer_contract canon -> valid_frags canon side <> [] ->
  frags_ok (sort_strs (valid_frags canon side)) /\
  flat_map okeep (map canon (sort_strs (valid_frags canon side))) = sort_strs (valid_frags canon side).
Proof.
  intros WC Ne.
  assert (Q : forall f, In f (sort_strs (valid_frags canon side)) -> canon f = Some f /\ nosep DOT f /\ nosep GT f).
  { intros f I. destruct (std_side_written canon side f I) as (g & Eg). apply (WC g f Eg). }
  split; [split; [apply sort_strs_nonempty; exact Ne|split; apply Forall_forall; intros f I; apply Q in I; tauto]|].
  apply flat_okeep_fixed. intros f I. apply Q in I. tauto.
Qed.

Theorem standardize_idempotent canon s t : writer_contract canon ->
  standardize_rsmi canon s = SSome t -> standardize_rsmi canon t = SSome t.
Proof.
  intros WC E. destruct (standardize_shape canon s t E) as (a & b & _ & -> & Na & Nb).
  destruct (std_side_ok canon a WC Na) as (Fa & Ka). destruct (std_side_ok canon b WC Nb) as (Fb & Kb).
  change (standardize_rsmi canon (rsmi_of (sort_strs (valid_frags canon a)) (sort_strs (valid_frags canon b))) =
          SSome (rsmi_of (sort_strs (valid_frags canon a)) (sort_strs (valid_frags canon b)))).
  unfold standardize_rsmi. rewrite std_sides_of by assumption. rewrite Ka, Kb, !sort_strs_idem.
  destruct Fa as (Za & _). destruct Fb as (Zb & _).
  destruct (sort_strs (valid_frags canon a)); [congruence|]. destruct (sort_strs (valid_frags canon b)); [congruence|]. reflexivity.
Qed.

(** * Standardize.fit *)
Lemma std_fit_keep_aam clean canon ist s :
  std_fit clean canon false ist s =
  match standardize_rsmi (canon (negb ist)) s with SSome t => SSome (replace_HH t) | x => x end.
Proof. reflexivity. Qed.

(** remove_aam=False / direct standardize_rsmi: invariant under fragment order and under rewritings of the fragments,
    for both values of ignore_stereo *)
Theorem std_fit_multiset clean canon ist rs ps rs' ps' :
  frags_ok rs -> frags_ok ps -> frags_ok rs' -> frags_ok ps' ->
  Permutation (map (canon (negb ist)) rs) (map (canon (negb ist)) rs') ->
  Permutation (map (canon (negb ist)) ps) (map (canon (negb ist)) ps') ->
  std_fit clean canon false ist (rsmi_of rs ps) = std_fit clean canon false ist (rsmi_of rs' ps').
Proof. intros. rewrite !std_fit_keep_aam. erewrite standardize_multiset; eauto. Qed.

(** remove_aam=True (default): the result is a function of the two cleaned sides: everything RDKit's canonical writer of the
    un-numbered side does not distinguish (atom order, fragment order, map numbers) is not distinguished by fit *)
Theorem std_fit_default_invariant clean canon ist a b a' b' :
  nosep GT a -> nosep GT b -> nosep GT a' -> nosep GT b' ->
  clean a = clean a' -> clean b = clean b' ->
  std_fit clean canon true ist (a ++ GG ++ b) = std_fit clean canon true ist (a' ++ GG ++ b').
Proof.
  intros Ha Hb Ha' Hb' Ea Eb. unfold std_fit, remove_atom_mapping.
  rewrite !split_gg_app; auto. rewrite Ea, Eb. reflexivity.
Qed.

(** fit never returns a string on which standardize_rsmi would have failed, and ValueError / None are passed through *)
Theorem std_fit_shape clean canon ra ist s u : std_fit clean canon ra ist s = SSome u ->
  exists s1 t, (if ra then remove_atom_mapping clean s else Some s) = Some s1 /\
               standardize_rsmi (canon (negb ist)) s1 = SSome t /\ u = replace_HH t.
Proof.
  unfold std_fit. destruct (if ra then remove_atom_mapping clean s else Some s) as [s1|]; [|discriminate].
  destruct (standardize_rsmi (canon (negb ist)) s1) as [| |t] eqn:E; try discriminate.
  intros T. injection T as <-. eauto.
Qed.

(** categorize_reactions: a loss-free split; a reaction matches exactly when it IS the standard form of the target *)
Theorem categorize_spec canon rs target m n : categorize canon rs target = Some (m, n) ->
  Permutation (m ++ n) rs /\
  (forall r, In r m <-> In r rs /\ standardize_rsmi (canon false) target = SSome r).
Proof.
  unfold categorize. destruct (standardize_rsmi (canon false) target) as [| |t] eqn:E; try discriminate.
  - intros T. injection T as <- <-. split; [apply Permutation_refl|]. intros r; split; [intros []|intros [_ ?]; discriminate].
  - intros T. injection T as <- <-. split.
    + apply C09_Lists.filter_split_perm.
    + intros r. rewrite filter_In, C08_Value.str_eqb_spec. split; intros [? ?]; split; auto; congruence.
Qed.

(** * rsmi_balance_check, string level: a verdict exists exactly for "a>>b" strings, and it compares the two formulas *)
Theorem rsmi_balance_check_spec formula a b : nosep GT a -> nosep GT b ->
  forall fa fb, formula a = Some fa -> formula b = Some fb ->
  rsmi_balance_check formula (a ++ GG ++ b) = Some true <-> fa = fb.
Proof.
  intros Ha Hb fa fb Ea Eb. unfold rsmi_balance_check, formula_or_empty. rewrite split_gg_app; auto. rewrite Ea, Eb.
  split; intros H.
  - injection H as H. apply C08_Value.str_eqb_spec; auto.
  - f_equal. apply C08_Value.str_eqb_spec; auto.
Qed.

(** * Non-vacuity *)
Definition ex_canon (f : str) : option str :=
  if C08_Model.str_eqb f [67; 79]%N then Some [67; 79]%N            (* "CO" -> "CO" *)
  else if C08_Model.str_eqb f [79; 67]%N then Some [67; 79]%N       (* "OC" -> "CO" *)
  else if C08_Model.str_eqb f [67]%N then Some [67]%N               (* "C" *)
  else if C08_Model.str_eqb f [79]%N then Some [79]%N               (* "O" *)
  else None.
Example ex_frags_ok : frags_ok [[79; 67]; [67]]%N.
Proof. repeat split; [discriminate| |]; repeat constructor; intros I; simpl in I; repeat destruct I as [I|I]; try discriminate I; auto. Qed.
(** "OC.C>>O.xx" and "C.CO>>xx.O" have the standard form "C.CO>>O"; standardising it again returns it *)
Example ex_standardize :
  standardize_rsmi ex_canon [79; 67; 46; 67; 62; 62; 79; 46; 120; 120]%N = SSome [67; 46; 67; 79; 62; 62; 79]%N /\
  standardize_rsmi ex_canon [67; 46; 67; 79; 62; 62; 120; 120; 46; 79]%N = SSome [67; 46; 67; 79; 62; 62; 79]%N /\
  standardize_rsmi ex_canon [67; 46; 67; 79; 62; 62; 79]%N = SSome [67; 46; 67; 79; 62; 62; 79]%N /\
  standardize_rsmi ex_canon [67; 62; 62; 120]%N = SNone /\ standardize_rsmi ex_canon [67; 62; 79]%N = SErr.
Proof. vm_compute. repeat split. Qed.
Example ex_writer_contract : writer_contract ex_canon.
Proof.
  intros f c. unfold ex_canon.
  repeat match goal with |- context [C08_Model.str_eqb f ?k] => destruct (C08_Model.str_eqb f k) end;
    intros E; try discriminate E; injection E as <-;
    (split; [reflexivity|split; intros I; simpl in I; repeat destruct I as [I|I]; try discriminate I; auto]).
Qed.
Example ex_replace_HH : replace_HH [91; 72; 72; 93; 46; 91; 72; 72; 93; 62; 62; 91; 72; 72]%N
                        = [91; 72; 93; 91; 72; 93; 46; 91; 72; 93; 91; 72; 93; 62; 62; 91; 72; 72]%N.
Proof. reflexivity. Qed.
Example ex_categorize : categorize (fun _ => ex_canon) [[67; 62; 62; 79]; [79; 62; 62; 67]]%N [67; 62; 62; 79]%N
                        = Some ([[67; 62; 62; 79]], [[79; 62; 62; 67]])%N.
Proof. reflexivity. Qed.
Example ex_balance_str :
  rsmi_balance_check (fun x => Some x) [67; 62; 62; 67]%N = Some true /\
  rsmi_balance_check (fun x => Some x) [67; 62; 62; 79]%N = Some false /\
  rsmi_balance_check (fun x => Some x) [67; 62; 79]%N = None.
Proof. vm_compute. repeat split. Qed.
