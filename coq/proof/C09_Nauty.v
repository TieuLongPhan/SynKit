(** C09 — back-end nauty: invariance premise of C09_numbering_independent_given_invariance discharged
    for reactant graphs whose atoms are all distinguishable ([rigid], proof/C09_NautyRigid.v, on top of C08). *)
From Coq Require Import List NArith ZArith Bool Arith Lia Permutation.
From SK Require Import lib.LGraph lib.C01_GraphLemmas model.C01_Model model.C09_Model
  proof.C09_Lists proof.C09_Canon proof.C09_Equiv proof.C09_Main proof.C09_Indep proof.C09_Graph proof.C09_WL proof.C09_NautyRigid.
From SK Require model.C08_Model proof.C08_Spec.
Import ListNotations.

Lemma wf_to_c08 (G : mgraph) : wf G -> wf (to_c08 G).
Proof.
  intros W. pose proof W as (A & B & _). apply wf_intro.
  - rewrite node_ids_to_c08. exact A.
  - intros a b x I. rewrite node_ids_to_c08. unfold to_c08 in I. simpl in I. apply in_map_iff in I.
    destruct I as ([[u v] o] & E & I). inversion E; subst. apply (B a b o I).
  - unfold to_c08. simpl. apply (simple_map_attr (fun _ _ (o : Z) => C08_Model.EA o None)). apply wf_simple. exact W.
Qed.

Lemma geq_cov_presents (p : N -> N) (G G' : mgraph) : presents p G G' ->
  C08_Spec.geq_cov (relabel p (to_c08 G)) (to_c08 G').
Proof.
  intros (RP & RE). split.
  - unfold C08_Spec.cov_nodes, relabel, to_c08. simpl. rewrite !map_map. simpl.
    apply Permutation_sym. eapply Permutation_trans; [apply Permutation_map; exact RP|].
    unfold set_amap, relabel. simpl. rewrite !map_map. simpl. apply Permutation_refl.
  - unfold C08_Spec.cov_edges, relabel, to_c08. simpl. rewrite !map_map.
    set (h := fun e : N * N * Z => let '(a, b, o) := e in (a, b, (o, @None Z, @None Z))).
    assert (E : forall es : list (N * N * Z),
               map (fun x => C08_Spec.cove (let '(u, v, o) := x in (u, v, C08_Model.EA o None))) es = map h (map nflip es)).
    { intros es. rewrite map_map. apply map_ext. intros [[u v] o]. reflexivity. }
    apply Permutation_sym. rewrite E. eapply Permutation_trans; [apply Permutation_map; exact RE|].
    unfold set_amap, relabel. simpl. rewrite !map_map. erewrite map_ext; [apply Permutation_refl|].
    intros [[u v] o]. reflexivity.
Qed.

(** the invariance premise for nauty, for any presentation of the reactant graph *)
Theorem nauty_invariance_sg (G G' : mgraph) (p : N -> N) :
  (forall a b, p a = p b -> a = b) -> wf G -> wf G' -> presents p G G' ->
  C08_Spec.els_ok (to_c08 G) -> rigid (to_c08 G) ->
  forall n, sigma_of (nauty_order G') (p n) = sigma_of (nauty_order G) n.
Proof.
  intros Pinj WG WG2 RG Eg Hr n. unfold nauty_order.
  rewrite (nauty_perm_rigid p Pinj (to_c08 G) (to_c08 G')); auto.
  - apply sigma_of_map. exact Pinj.
  - apply wf_to_c08. exact WG.
  - apply wf_to_c08. exact WG2.
  - apply geq_cov_presents. exact RG.
Qed.

(** numbering / atom-order independence of [canonicalise_nauty] (what [run_canon_nauty] evaluates) *)
Theorem numbering_independent_nauty (G H G2' H2' : mgraph) (p : N -> N) :
  parsed G -> parsed H -> shares_atom G H ->
  (forall a b, p a = p b -> a = b) -> (forall n, In n (node_ids G) \/ In n (node_ids H) -> p n <> 0%N) ->
  keeps_extra_order p G H ->
  relabelled_by p G G2' -> relabelled_by p H H2' ->
  C08_Spec.els_ok (to_c08 G) -> rigid (to_c08 G) ->
  exists (pairs1 pairs2 : list (N * N)) (Gc1 Gc2 Hc1 Hc2 : mgraph),
    canonicalise_nauty G H = Some (Gc1, pairs1, Hc1) /\
    canonicalise_nauty (set_amap G2') (set_amap H2') = Some (Gc2, pairs2, Hc2) /\
    same_upto_order Gc2 Gc1 /\ same_upto_order Hc2 Hc1.
Proof.
  intros PG PH Hs Pinj Ppos Pmono RG2 RH2 Eg Hr. pose proof PG as (WG & _).
  assert (WG2 : wf (set_amap G2')) by (apply wf_set_amap; apply (rel_wf p Pinj G G2' WG RG2)).
  pose proof (nauty_enumerates G WG) as En1. pose proof (nauty_enumerates (set_amap G2') WG2) as En2.
  destruct (presentation_independent_mono G H G2' H2' (canon_relabel (nauty_order G) G) (canon_relabel (nauty_order (set_amap G2')) (set_amap G2'))
              (nauty_order G) (nauty_order (set_amap G2')) p PG PH Hs Pinj Ppos Pmono RG2 RH2 En1 (relabelled_exact _ G)
              En2 (relabelled_exact _ _))
    as (pairs1 & pairs2 & Hc1 & Hc2 & E1 & E2 & S1 & S2).
  - intros n _. apply (nauty_invariance_sg G (set_amap G2') p Pinj WG WG2 (relabelled_presents p G G2' RG2) Eg Hr).
  - exists pairs1, pairs2, (set_amap (canon_relabel (nauty_order G) G)), (set_amap (canon_relabel (nauty_order (set_amap G2')) (set_amap G2'))),
      (set_amap Hc1), (set_amap Hc2). unfold canonicalise_nauty. auto.
Qed.

(** non-vacuity: CH3Br + OH- is rigid (three different elements) and its symbols are alphanumeric *)
Lemma combine_eq (p : list N) : forall p', length p = length p' -> (forall a a', In (a, a') (combine p p') -> a = a') -> p = p'.
Proof.
  induction p as [|x p IH]; intros [|y p'] Hl Hc; simpl in *; try discriminate; [reflexivity|].
  f_equal; [apply Hc; left; reflexivity|]. apply IH; [lia|]. intros a a' I. apply Hc. right. exact I.
Qed.
Example ex_G_rigid : rigid (to_c08 ex_G) /\ C08_Spec.els_ok (to_c08 ex_G).
Proof.
  split.
  - intros p p' Pp Pp' (Z1 & _). apply combine_eq; [rewrite (Permutation_length Pp), (Permutation_length Pp'); reflexivity|].
    intros a a' I. pose proof (Z1 a a' I) as E.
    assert (Ia : In a (node_ids (to_c08 ex_G))) by (eapply Permutation_in; [exact Pp|]; apply in_combine_l in I; exact I).
    assert (Ia' : In a' (node_ids (to_c08 ex_G))) by (eapply Permutation_in; [exact Pp'|]; apply in_combine_r in I; exact I).
    simpl in Ia, Ia'. destruct Ia as [<-|[<-|[<-|[]]]]; destruct Ia' as [<-|[<-|[<-|[]]]]; try reflexivity; vm_compute in E; discriminate.
  - intros q I. simpl in I. destruct I as [<-|[<-|[<-|[]]]]; vm_compute; reflexivity.
Qed.
