(** C19 — the decimal printer of model/C19_Text.v: reading the digits back gives the number (so equal texts mean equal numbers). *)
From Coq Require Import String List NArith ZArith Bool Arith Lia.
From SK Require Import model.C17_Model model.C19_Model model.C19_Text.
Import ListNotations.
Local Open Scope N_scope.

Definition val (s : str) : N := fold_left (fun a d => a * 10 + (d - 48)) s 0.
Definition val_Z (s : str) : Z := match s with 45 :: t => (- Z.of_N (val t))%Z | _ => Z.of_N (val s) end.

Lemma fold_val s : forall a, fold_left (fun a d => a * 10 + (d - 48)) s a = a * 10 ^ N.of_nat (length s) + val s.
Proof.
  unfold val. induction s as [|d s IH]; intros a; [simpl; lia|].
  cbn [fold_left length]. rewrite (IH (a * 10 + (d - 48))), (IH (0 * 10 + (d - 48))). rewrite Nat2N.inj_succ, N.pow_succ_r'. ring.
Qed.

Lemma dec_fuel_val f : forall n acc, n < 10 ^ N.of_nat f ->
  val (dec_fuel f n acc) = n * 10 ^ N.of_nat (length acc) + val acc.
Proof.
  induction f as [|f IH]; intros n acc H.
  - simpl in *. assert (n = 0) by lia. subst. lia.
  - cbn [dec_fuel]. cbv zeta. rewrite Nat2N.inj_succ, N.pow_succ_r' in H.
    assert (Hd : n = 10 * (n / 10) + n mod 10) by (apply N.div_mod'). assert (Hm : n mod 10 < 10) by (apply N.mod_lt; discriminate).
    assert (Hv : val ((48 + n mod 10) :: acc) = (n mod 10) * 10 ^ N.of_nat (length acc) + val acc).
    { unfold val at 1. cbn [fold_left]. rewrite fold_val. f_equal. f_equal. clear. generalize (n mod 10). intros x. lia. }
    destruct (N.eqb_spec (n / 10) 0) as [E|NE].
    + rewrite Hv. f_equal. f_equal. lia.
    + rewrite IH by (apply N.div_lt_upper_bound; lia). rewrite Hv. simpl length. rewrite Nat2N.inj_succ, N.pow_succ_r'. lia.
Qed.

(** the fuel of dec_N suffices *)
Lemma log2_pow10 n : n < 10 ^ N.of_nat (S (N.to_nat (N.log2 n))).
Proof.
  rewrite Nat2N.inj_succ, N2Nat.id. destruct n as [|p]; [simpl; lia|].
  eapply N.lt_le_trans; [apply (proj2 (N.log2_spec (N.pos p) (eq_refl)))|].
  apply N.pow_le_mono_l. lia.
Qed.

Theorem dec_N_val n : val (dec_N n) = n.
Proof.
  unfold dec_N. rewrite dec_fuel_val by apply log2_pow10.
  change (N.of_nat (length (@nil N))) with 0. change (val []) with 0. rewrite N.pow_0_r. lia.
Qed.

Lemma dec_fuel_digits f : forall n acc, (forall d, In d acc -> 48 <= d < 58) -> forall d, In d (dec_fuel f n acc) -> 48 <= d < 58.
Proof.
  induction f as [|f IH]; intros n acc H d I; cbn [dec_fuel] in I; cbv zeta in I; [apply H; exact I|].
  assert (Hm : n mod 10 < 10) by (apply N.mod_lt; discriminate).
  assert (H' : forall d, In d ((48 + n mod 10) :: acc) -> 48 <= d < 58)
    by (intros d' [<-|I']; [revert Hm; generalize (n mod 10); intros x Hx; lia|apply H; exact I']).
  destruct (n / 10 =? 0); [apply H'; exact I|eapply IH; [exact H'|exact I]].
Qed.

(** reading back what f"{int}" printed gives the integer: sign, then the digits *)
Theorem dec_Z_val z : val_Z (dec_Z z) = z.
Proof.
  destruct z as [|p|p]; [reflexivity| |].
  - unfold dec_Z, val_Z. assert (D := dec_fuel_digits (S (N.to_nat (N.log2 (N.pos p)))) (N.pos p) [] (fun d I => match I with end)).
    fold (dec_N (N.pos p)) in D. destruct (dec_N (N.pos p)) as [|d t] eqn:E; [rewrite <- E, dec_N_val; reflexivity|].
    assert (48 <= d < 58) by (apply D; left; reflexivity). destruct (N.eqb_spec d 45) as [->|NE]; [lia|].
    assert (X : Z.of_N (val (d :: t)) = Z.pos p) by (rewrite <- E, dec_N_val; reflexivity).
    destruct d as [|q]; [lia|]. repeat (destruct q as [q|q|]; try exact X; try lia).
  - unfold dec_Z, val_Z. rewrite dec_N_val. reflexivity.
Qed.

Lemma dec_Z_inj z1 z2 : dec_Z z1 = dec_Z z2 -> z1 = z2.
Proof. intros E. rewrite <- (dec_Z_val z1), <- (dec_Z_val z2), E. reflexivity. Qed.

Lemma dec_N_digits n d : In d (dec_N n) -> 48 <= d < 58.
Proof. intros I. eapply dec_fuel_digits; [|exact I]. intros d' []. Qed.

Lemma repr_str_inj s1 s2 : repr_str (Some s1) = repr_str (Some s2) -> deficiency s1 = deficiency s2.
Proof. unfold repr_str. intros E. apply app_inv_head in E. apply app_inv_tail in E. apply dec_Z_inj. exact E. Qed.

Example ex_text :
  explain_str (Some (Summary 3 3 3 1 2 0 false)) = codes "Deficiency=0, Linkage-classes=1, Weakly-reversible=False"%string /\
  explain_str (Some (Summary 1 2 3 12 1 (-2) true)) = codes "Deficiency=-2, Linkage-classes=12, Weakly-reversible=True"%string /\
  repr_str None = codes "<DeficiencyAnalyzer deficiency=NA>"%string /\ repr_str (Some (Summary 3 3 3 1 2 105 false)) = codes "<DeficiencyAnalyzer deficiency=105>"%string /\
  dec_N 1000000 = [49; 48; 48; 48; 48; 48; 48].
Proof. repeat split. Qed.
