(** C18 — network-level reading of clause 2 for the species view. *)
From Coq Require Import List NArith ZArith Bool Arith Lia Permutation.
From SK Require Import lib.IRCore lib.IRSearch lib.C18_IRValid model.C18_Model proof.C18_Spec proof.C18_Graph proof.C18_Label
  proof.C18_View proof.C18_Invariant proof.C18_NetBip.
Import ListNotations.

Definition A0 : eattr := (NONE, NONE).
Definition pairs_of_rxn (r : rxn) : list (N * N) :=
  flat_map (fun rc => map (fun pc => (fst rc, fst pc)) (rhs r)) (lhs r).
Definition pairs_of (n : net) : list (N * N) := flat_map pairs_of_rxn (nrxns n).
Definition ens (l : list arc) (k : N * N) : list arc := ensure_arc (fst k) (snd k) A0 l.

Lemma fold_ens L : forall acc,
  (forall k, In k (map akey (fold_left ens L acc)) <-> In k (map akey acc) \/ In k L) /\
  (NoDup (map akey acc) -> NoDup (map akey (fold_left ens L acc))) /\
  (forall e, In e (fold_left ens L acc) -> In e acc \/ aattr e = A0).
Proof.
  induction L as [|k L IH]; intros acc; simpl.
  - split; [intros; tauto|]. split; auto.
  - destruct (IH (ens acc k)) as (H1 & H2 & H3). split; [|split].
    + intros x. rewrite H1. unfold ens. rewrite ensure_arc_in. destruct k. simpl.
      split; [intros [[H|H]|H]|intros [H|[H|H]]]; auto.
    + intros Hn. apply H2. unfold ens. apply ensure_arc_nodup. auto.
    + intros e He. destruct (H3 e He) as [I|E]; auto. unfold ens in I. destruct (ensure_arc_mem _ _ _ _ _ I) as [I'| ->]; auto.
Qed.

Lemma varcs_view_sp n : varcs (view_sp n) = fold_left ens (pairs_of n) [].
Proof.
  unfold view_sp, pairs_of.
  assert (G : forall rs g, varcs (fold_left sp_add_rxn rs g) = fold_left ens (flat_map pairs_of_rxn rs) (varcs g)).
  { induction rs as [|r rs IH]; intros g; simpl; auto. rewrite IH, fold_left_app. f_equal.
    unfold sp_add_rxn, pairs_of_rxn. generalize (lhs r) as L. intros L. revert g.
    induction L as [|rc L IHL]; intros g; simpl; auto. rewrite IHL, fold_left_app. f_equal.
    generalize (rhs r) as R. intros R. revert g. induction R as [|pc R IHR]; intros g; simpl; auto. rewrite IHR. reflexivity. }
  rewrite G. reflexivity.
Qed.
Lemma vnodes_view_sp n : NoDup (nspecies n) -> vnodes (view_sp n) = map sp_node (nspecies n).
Proof.
  intros H. unfold view_sp.
  assert (G : forall rs g, vnodes (fold_left sp_add_rxn rs g) = vnodes g).
  { induction rs as [|r rs IH]; intros g; simpl; auto. rewrite IH. unfold sp_add_rxn.
    generalize (lhs r) as L. intros L. revert g. induction L as [|rc L IHL]; intros g; simpl; auto. rewrite IHL.
    generalize (rhs r) as R. intros R. revert g. induction R as [|pc R IHR]; intros g; simpl; auto. rewrite IHR. reflexivity. }
  rewrite G. simpl. apply species_nodes_closed. auto.
Qed.

Lemma arcs_view_sp n e : In e (varcs (view_sp n)) <-> In (akey e) (pairs_of n) /\ aattr e = A0.
Proof.
  rewrite varcs_view_sp. destruct (fold_ens (pairs_of n) []) as (H1 & H2 & H3). split.
  - intros I. split.
    + assert (I0 : In (akey e) (map akey (fold_left ens (pairs_of n) []))) by (apply in_map; auto).
      apply H1 in I0. destruct I0 as [[]|I0]; auto.
    + destruct (H3 e I) as [[]|E]; auto.
  - intros [I E]. assert (I0 : In (akey e) (map akey (fold_left ens (pairs_of n) []))) by (apply H1; auto).
    apply in_map_iff in I0. destruct I0 as (e' & Ek & I').
    destruct (H3 e' I') as [[]|E']. destruct e as [[a b] c], e' as [[a' b'] c']. unfold akey, asrc, adst, aattr in *. simpl in *.
    inversion Ek; subst. exact I'.
Qed.

Lemma Forall2_in_r {A B} (R : A -> B -> Prop) l l' y : Forall2 R l l' -> In y l' -> exists x, In x l /\ R x y.
Proof. induction 1; simpl; intros I; [contradiction|]. destruct I as [<-|I]; eauto. destruct (IHForall2 I) as (x0 & ? & ?). eauto. Qed.
Lemma Forall2_in_l {A B} (R : A -> B -> Prop) l l' x : Forall2 R l l' -> In x l -> exists y, In y l' /\ R x y.
Proof. induction 1; simpl; intros I; [contradiction|]. destruct I as [<-|I]; eauto. destruct (IHForall2 I) as (y0 & ? & ?). eauto. Qed.

Lemma pairs_of_rxn_in r k : In k (pairs_of_rxn r) <-> exists rc pc, In rc (lhs r) /\ In pc (rhs r) /\ k = (fst rc, fst pc).
Proof.
  unfold pairs_of_rxn. rewrite in_flat_map. split.
  - intros (rc & Hrc & I). apply in_map_iff in I. destruct I as (pc & <- & Hpc). eauto.
  - intros (rc & pc & Hrc & Hpc & ->). exists rc. split; auto. apply in_map_iff. eauto.
Qed.

Lemma pairs_variant f n n' : net_variant f n n' ->
  forall k, In k (pairs_of n') <-> exists k0, In k0 (pairs_of n) /\ k = (f (fst k0), f (snd k0)).
Proof.
  intros (_ & rs & HF & Hp) k. unfold pairs_of. rewrite in_flat_map. split.
  - intros (r' & Hr' & I). apply (Permutation_in _ (Permutation_sym Hp)) in Hr'.
    destruct (Forall2_in_r _ _ _ _ HF Hr') as (r & Hr & (_ & Hl & Hrr)).
    apply pairs_of_rxn_in in I. destruct I as (rc & pc & Hrc & Hpc & ->).
    apply (Permutation_in _ (Permutation_sym Hl)) in Hrc. apply (Permutation_in _ (Permutation_sym Hrr)) in Hpc.
    unfold rename_side in Hrc, Hpc. apply in_map_iff in Hrc, Hpc. destruct Hrc as (rc0 & <- & Hrc0), Hpc as (pc0 & <- & Hpc0).
    exists (fst rc0, fst pc0). split; auto. apply in_flat_map. exists r. split; auto. apply pairs_of_rxn_in. eauto.
  - intros (k0 & I & ->). apply in_flat_map in I. destruct I as (r & Hr & I).
    destruct (Forall2_in_l _ _ _ _ HF Hr) as (r' & Hr' & (_ & Hl & Hrr)).
    exists r'. split; [apply (Permutation_in _ Hp); auto|].
    apply pairs_of_rxn_in in I. destruct I as (rc & pc & Hrc & Hpc & ->). apply pairs_of_rxn_in.
    exists (f (fst rc), snd rc), (f (fst pc), snd pc). split; [|split]; auto.
    + apply (Permutation_in _ Hl). unfold rename_side. apply in_map_iff. eauto.
    + apply (Permutation_in _ Hrr). unfold rename_side. apply in_map_iff. eauto.
Qed.

Theorem net_variant_sp f n n' : NoDup (nspecies n) -> NoDup (nspecies n') -> net_closed n -> inj_on f (nspecies n) ->
  net_variant f n n' -> geq (view_sp n') (relabel f (view_sp n)).
Proof.
  intros Hn Hn' Hcl Hf Hv.
  destruct (view_sp_GI n Hcl) as (Hw & _). 
  assert (Hids : node_ids (view_sp n) = nspecies n).
  { unfold node_ids. rewrite vnodes_view_sp by auto. rewrite map_map. simpl. apply map_id. }
  assert (Hwr : wf (relabel f (view_sp n))) by (apply wf_relabel; auto; rewrite Hids; auto).
  split.
  - unfold relabel. simpl. rewrite !vnodes_view_sp by auto. rewrite map_map.
    change (fun x : N => (f (fst (sp_node x)), snd (sp_node x))) with (fun x : N => sp_node (f x)).
    rewrite <- (map_map f sp_node). apply Permutation_map. apply Permutation_sym. apply Hv.
  - apply NoDup_Permutation.
    + rewrite varcs_view_sp. destruct (fold_ens (pairs_of n') []) as (_ & H2 & _).
      apply (NoDup_map_inv akey). apply H2. constructor.
    + apply (NoDup_map_inv akey). apply Hwr.
    + intros e. rewrite arcs_view_sp. rewrite (pairs_variant f n n' Hv). unfold relabel. simpl. rewrite in_map_iff. split.
      * intros ((k0 & I & Ek) & Ea). destruct k0 as [a b]. simpl in Ek.
        exists (a, b, A0). split.
        -- destruct e as [[x y] c]. unfold akey, asrc, adst, aattr in *. simpl in *. inversion Ek; subst. reflexivity.
        -- apply arcs_view_sp. split; auto.
      * intros (e0 & <- & I). apply arcs_view_sp in I. destruct I as [I Ea]. split; auto.
        exists (akey e0). split; auto.
Qed.

Theorem net_canon_invariant_sp f n n' lab p lab' p' :
  NoDup (nspecies n) -> NoDup (nspecies n') -> net_closed n -> net_variant f n n' -> inj_on f (nspecies n) ->
  fst (canon_search (view false true n)) = Some (lab, p) -> fst (canon_search (view false true n')) = Some (lab', p') ->
  lab' = lab /\ geq (canon_graph (view false true n') p') (canon_graph (view false true n) p).
Proof.
  intros Hn Hn' Hcl Hv Hf Hb Hb'. simpl in *.
  destruct (view_sp_GI n Hcl) as (Hw & Hk & Ha).
  apply (canon_invariant_on f (view_sp n) (view_sp n') lab p lab' p'); auto.
  - unfold node_ids. rewrite vnodes_view_sp by auto. rewrite map_map. simpl. rewrite map_id. exact Hf.
  - apply net_variant_sp; auto.
Qed.
