(** C12 -- what [last_size] is in ALL-SIZES mode: [best_size] is overwritten on the
    way down, so after the loop it is the SMALLEST level that has a common induced mapping -- the size of the smallest returned
    mapping, not of the largest (the docstring of the property [last_size] says "size of the largest mapping").  The property
    text does not speak about [last_size]; the model follows the code. *)
From Coq Require Import List NArith ZArith Bool Arith Lia Permutation.
From SK Require Import lib.LGraph model.C12_Model proof.C12_Search.
Import ListNotations.
Local Open Scope nat_scope.

Section LastSize.
Variable nm : option nattr -> option nattr -> bool.
Variable em : eattr -> eattr -> bool.
Variables pattern host : graph.
Hypothesis pat_nodup : NoDup (node_ids pattern).
Notation CI := (common_induced nm em pattern host).
Notation LEVEL := (level nm em pattern host).

(** all-sizes mode: last_size = 0 with an empty result, else the size of the SMALLEST returned mapping (and some returned
    mapping has exactly that size) *)
Theorem last_size_all_sizes maps last tried :
  search_subgraphs nm em pattern host false = (maps, last, tried) ->
  (maps = [] /\ last = 0) \/
  (1 <= last /\ (exists m, In m maps /\ length m = last) /\ forall m, In m maps -> last <= length m).
Proof.
  intros Es. pose proof (search_all_spec nm em pattern host pat_nodup maps last tried Es) as (S1 & S2).
  unfold search_subgraphs in Es.
  destruct (search_loop nm em false pattern host (Nat.min (n_nodes pattern) (n_nodes host)) [] 0 0) as [[acc best] tr] eqn:E.
  cbn [andb] in Es.
  destruct (proj2 (search_loop_all nm em pattern host pat_nodup _ [] 0 0 acc best tr (fun m F => match F with end) E))
    as [(Hall & ->)|(b & Hb & Hn & Hall & ->)].
  - (* no level has a mapping *)
    left. assert (Hm : maps = []).
    { apply no_elt_nil. intros m Hm. destruct (S1 m Hm) as (C & L).
      apply (level_nonempty nm em pattern host pat_nodup m C). apply Hall. exact (conj L (ci_length nm em pattern host m C)). }
    split; [exact Hm|]. injection Es as Em <- _. now rewrite Em, Hm.
  - right. destruct b as [|b]; [destruct Hb as [Hb _]; inversion Hb|]. injection Es as <- <- _.
    split; [exact (proj1 Hb)|]. split.
    + destruct (LEVEL (S b)) as [|m r] eqn:El; [now elim Hn|].
      destruct (level_sound nm em pattern host pat_nodup (S b) m) as (C & L); [rewrite El; now left|].
      destruct (S2 m C) as (m' & I' & P); [rewrite L; exact (proj1 Hb)|].
      exists m'. split; [exact I'|]. now rewrite <- (Permutation_length P).
    + intros m Hm. destruct (S1 m Hm) as (C & L).
      destruct (le_lt_dec (S b) (length m)) as [G|G]; [exact G|].
      elim (level_nonempty nm em pattern host pat_nodup m C). apply Hall. exact (conj L G).
Qed.

End LastSize.

Module Example_last_size.
Definition at_ (e : N) : nattr := (Some e, [Some e]).
(** C-C=O against O=C, all sizes: one mapping of size 2, three of size 1; last_size is 1, the largest mapping has size 2 *)
Definition gA : graph := LG [(1, at_ 1); (2, at_ 1); (3, at_ 2)]%N [(1, 2, [Some 2%Z]); (2, 3, [Some 4%Z])]%N.
Definition gB : graph := LG [(7, at_ 2); (8, at_ 1)]%N [(7, 8, [Some 4%Z])]%N.
Example last_size_is_the_smallest_level :
  let r := find_common_subgraph [0%N] false 0%N gA gB false in
  r_last r = 1 /\ map (@length _) (r_maps r) = [2; 1; 1; 1].
Proof. vm_compute. split; reflexivity. Qed.
End Example_last_size.
