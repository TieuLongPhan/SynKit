(** C16 — reaction strings keep the ORDER of the reactions: the lines are parsed one by one, each appended to the
    insertion-order list, so the sequence of (rule, reactants, products) in insertion order of the parsed network is the
    sequence in printing order (ids are regenerated). *)
From stdpp Require Import gmap strings sets pretty sorting.
From SK Require Import lib.Tok model.C15_Model proof.C15_Proof model.C16_Model proof.C16_Defs proof.C16_Common proof.C16_Str.
Local Open Scope string_scope.
Local Open Scope list_scope.

(** the stored reactions in insertion order *)
Definition rxn_seq (H : net) : list rxn := (edge_seq H).*2.

Lemma add_generated_order s l r rule s' e : add s l r rule None = (s', None, e) →
  edges s !! e = None ∧ edges s' = <[ e := Rxn (norm_rule rule) l r ]> (edges s) ∧ order s' = order s ++ [e].
Proof. intros Ha. apply add_spec in Ha as [_ (? & _ & ? & ?)]. done. Qed.

Lemma edge_seq_snoc s s' e rx : (∀ e0, e0 ∈ order s → is_Some (edges s !! e0)) → edges s !! e = None →
  edges s' = <[ e := rx ]> (edges s) → order s' = order s ++ [e] → edge_seq s' = edge_seq s ++ [(e, rx)].
Proof.
  intros Hall Hfresh He Ho. unfold edge_seq. rewrite Ho, He, omap_app. cbn. rewrite lookup_insert. cbn. f_equal.
  apply omap_ext_in. intros e0 Hin. rewrite lookup_insert_ne; [done|]. intros <-. destruct (Hall e Hin). congruence.
Qed.

(** every successful add_rxn_from_str appends exactly one reaction under a fresh id ([add] is kept folded while
    [add_from_str] is taken apart) *)
Local Opaque add.
Lemma add_from_str_appends s line rule ps s' : add_from_str s line rule ps = (s', None) →
  ∃ e rx, edges s !! e = None ∧ edges s' = <[ e := rx ]> (edges s) ∧ order s' = order s ++ [e].
Proof.
  unfold add_from_str. intros Ha. repeat case_match; simplify_eq.
  all: match goal with H : add _ _ _ _ None = (_, ?er, _) |- _ =>
         destruct er; [done|]; apply add_generated_order in H as (? & ? & ?); eauto end.
Qed.
Local Transparent add.

Definition order_ok (s : net) : Prop := ∀ e0, e0 ∈ order s → is_Some (edges s !! e0).

Lemma appended_seq s s' e rx : order_ok s → edges s !! e = None → edges s' = <[ e := rx ]> (edges s) →
  order s' = order s ++ [e] → order_ok s' ∧ edge_seq s' = edge_seq s ++ [(e, rx)].
Proof.
  intros Hok Hf He Ho. split; [|by apply edge_seq_snoc].
  intros e0. rewrite Ho, He, elem_of_app, elem_of_list_singleton. intros [Hin| ->].
  - rewrite lookup_insert_ne; [by apply Hok|]. intros <-. destruct (Hok e Hin). congruence.
  - rewrite lookup_insert. eauto.
Qed.

Lemma parse_printed_seq ii (items : list (string * rxn)) : Forall (λ p, rxn_ok p.2) items → ∀ s dr pf, order_ok s →
  ∃ s', parse_rxns s ((λ p, of_chars (line_chars ii p.1 p.2)) <$> items) dr true pf = (s', None) ∧
        order_ok s' ∧ rxn_seq s' = rxn_seq s ++ items.*2.
Proof.
  induction 1 as [|[e rx] items Hok _ IH]; intros s dr pf Hs.
  - exists s. split; [done|]. split; [done|]. by rewrite app_nil_r.
  - unfold parse_rxns. cbn [fmap list_fmap foldl].
    destruct (add_from_str_line s ii e rx Hok) as (s1 & e1 & Hadd & Hfresh & Hedges & Hord). cbn [fst snd].
    rewrite (rule_or_default_line ii e rx dr Hok), Hadd.
    destruct (appended_seq s s1 e1 rx Hs Hfresh Hedges Hord) as [Hs1 Hseq].
    destruct (IH s1 dr pf Hs1) as (s' & Hparse & Hs' & Hq). exists s'. split; [exact Hparse|]. split; [done|].
    rewrite Hq. unfold rxn_seq. rewrite Hseq, fmap_app. cbn. by rewrite <-(assoc_L (++)).
Qed.

(** printing in insertion order ([sort = False]) and parsing back keeps the sequence of reactions *)
Lemma strings_roundtrip_order (H : net) (include_id prefer_suffix : bool) (default_rule : string) :
  wf16 H → strings_domain H = true →
  rxn_seq (rxns_to_hypergraph (hypergraph_to_rxn_strings H true include_id false) default_rule true prefer_suffix).1 = rxn_seq H.
Proof.
  intros (Hwf & _ & Hord & _) Hdom. unfold rxns_to_hypergraph, hypergraph_to_rxn_strings.
  pose proof (domain_items_ok H _ Hwf Hdom (edge_seq_perm H Hord)) as Hok. rewrite (printed_line_chars _ _ Hok).
  destruct (parse_printed_seq include_id (edge_seq H) Hok empty_net default_rule prefer_suffix) as (s' & -> & _ & Hq).
  { intros ? ?%elem_of_nil. done. }
  cbn. rewrite Hq. done.
Qed.

Definition ex_order_net : net :=
  mk_net [] [(Some "z", "r", [("B", 1%Z)], [("C", 2%Z)]); (Some "a", "q", [("A", 1%Z)], [("B", 1%Z)])] [].
Example ex_order : (r_rule <$> rxn_seq ex_order_net) = ["r"; "q"] ∧
  (r_rule <$> rxn_seq (rxns_to_hypergraph (hypergraph_to_rxn_strings ex_order_net true false true) "r" true false).1) = ["q"; "r"].
Proof. by vm_compute. Qed.
