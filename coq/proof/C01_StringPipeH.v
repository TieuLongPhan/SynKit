(** C01 — the string round trip for reactions WITH explicit hydrogens under the default writer *)
From Coq Require Import List NArith ZArith Bool Lia Arith.
From SK Require Import lib.LGraph lib.C01_GraphLemmas model.C01_Model model.C02_Model model.C01_String
  model.C01_Prem proof.C01_Proof proof.C02_Proof proof.C01_StringProof proof.C01_StringHyd proof.C01_StringHydExt proof.C01_StringPipe
  proof.C01_RenumWrite proof.C01_PremProof.
Import ListNotations.
Local Open Scope Z_scope.

(** the labels the property talks about, plus the atom map *)
Definition sel5 (a : gnode) : N * bool * Z * Z * Z := (g_el a, g_arom a, g_hc a, g_ch a, g_amap a).
Definition geq5 (g1 g2 : mgraph) : Prop :=
  (forall n, option_map sel5 (label g1 n) = option_map sel5 (label g2 n)) /\ (forall u v, adj g1 u v = adj g2 u v).

Lemma geq5_sym g1 g2 : geq5 g1 g2 -> geq5 g2 g1.
Proof. intros [A B]. split; intros; symmetry; auto. Qed.
Lemma geq5_geq_sel g1 g2 : geq5 g1 g2 -> geq_sel g1 g2.
Proof.
  intros [A B]. split; [|exact B]. intros n. specialize (A n).
  destruct (label g1 n) as [a|], (label g2 n) as [b|]; cbn in *; try discriminate; [|reflexivity].
  inversion A. unfold sel4. congruence.
Qed.
Lemma geq_sel_amap_geq5 g1 g2 : geq_sel g1 g2 -> amap_id g1 -> amap_id g2 -> geq5 g1 g2.
Proof.
  intros [A B] A1 A2. split; [|exact B]. intros n. specialize (A n).
  destruct (label g1 n) as [a|] eqn:L1, (label g2 n) as [b|] eqn:L2; cbn in *; try discriminate; [|reflexivity].
  inversion A. unfold sel5. rewrite (A1 n a L1), (A2 n b L2). congruence.
Qed.

(** * implicit_hydrogen respects geq5 *)
Section Ext5.
Variables g1 g2 : mgraph.
Hypothesis W1 : wf g1.
Hypothesis W2 : wf g2.
Hypothesis E : geq5 g1 g2.

Lemma lab5 n : match label g1 n, label g2 n with
               | Some a, Some b => sel5 a = sel5 b
               | None, None => True
               | _, _ => False
               end.
Proof. destruct E as [A _]. specialize (A n). destruct (label g1 n), (label g2 n); cbn in *; try discriminate; auto. congruence. Qed.

Lemma is_Hn_5 n : is_Hn g1 n = is_Hn g2 n.
Proof. apply geq_sel_is_Hn, geq5_geq_sel. exact E. Qed.

Lemma preserved_members5 pres h : In h (preserved g1 pres) <-> In h (preserved g2 pres).
Proof.
  rewrite (preserved_spec g1 pres h W1), (preserved_spec g2 pres h W2). pose proof (lab5 h) as H.
  destruct (label g1 h) as [a|], (label g2 h) as [b|]; try contradiction.
  - inversion H as [[E1 E2 E3 E4 E5]]. unfold is_H. split.
    + intros (c & L & Hc & Hm). inversion L; subst c. exists b. split; [reflexivity|]. rewrite <- E1, <- E5. auto.
    + intros (c & L & Hc & Hm). inversion L; subst c. exists a. split; [reflexivity|]. rewrite E1, E5. auto.
  - split; intros (c & L & _); discriminate.
Qed.

Theorem implicit_hydrogen_geq5 pres : geq5 (implicit_hydrogen g1 pres) (implicit_hydrogen g2 pres).
Proof.
  split.
  - intros n. rewrite (ih_label_ext g1 g2 W1 W2 is_Hn_5 preserved_members5 (proj2 E)), (proj1 (implicit_hydrogen_spec g2 pres W2)).
    pose proof (lab5 n) as H.
    destruct (label g1 n) as [a|], (label g2 n) as [b|]; try contradiction; [|reflexivity].
    inversion H as [[E1 E2 E3 E4 E5]]. unfold is_H. rewrite E1. destruct (N.eqb (g_el b) EL_H).
    + destruct (mem n (preserved g2 pres) || negb (has_heavy g2 n)); cbn; [rewrite H|]; reflexivity.
    + cbn. unfold sel5. cbn. rewrite E1, E2, E3, E4, E5. reflexivity.
  - intros u v. apply (ih_adj_ext g1 g2 is_Hn_5 preserved_members5 (proj2 E)).
Qed.
End Ext5.

(** * implicit_hydrogen keeps well-formedness and atom_map = id *)
Lemma ih_node_ids (g : mgraph) pres :
  node_ids (implicit_hydrogen g pres) = filter (fun n => negb (ih_removed g pres n)) (node_ids g).
Proof.
  unfold node_ids, implicit_hydrogen. cbn [gnodes]. rewrite pass2_flat.
  set (ns := fold_left (fun ns n => dec_hc n ns) (decs g (preserved g pres)) (ih_pass1 g)).
  assert (map fst ns = map fst (gnodes g)) as Ek by (unfold ns; rewrite decs_keys, pass1_keys; reflexivity).
  revert Ek. generalize ns. clear ns. intros ns. generalize (gnodes g). induction ns as [|[k a] r IH]; intros l Ek.
  - destruct l; [reflexivity|discriminate].
  - destruct l as [|[k' a'] l']; [discriminate|]. cbn in Ek. inversion Ek; subst k'. cbn [filter map fst].
    destruct (ih_removed g pres k); cbn [negb map fst]; [apply IH; assumption|]. f_equal. apply IH. assumption.
Qed.

Lemma ih_wf (g : mgraph) pres : wf g -> wf (implicit_hydrogen g pres).
Proof.
  intros W. apply wf_intro.
  - rewrite ih_node_ids. apply NoDup_filter. apply W.
  - intros a b x I. unfold implicit_hydrogen in I. cbn [gedges] in I. apply filter_In in I. destruct I as [I K].
    apply andb_true_iff in K. destruct K as [Ka Kb]. destruct (wf_edge_nodes W I) as (Ha & Hb & Hab).
    rewrite !ih_node_ids, !filter_In. auto.
  - unfold implicit_hydrogen. cbn [gedges]. apply simple_filter. apply wf_simple. exact W.
Qed.

Lemma ih_amap_id (g : mgraph) pres : wf g -> amap_id g -> amap_id (implicit_hydrogen g pres).
Proof.
  intros W A n b L. destruct (implicit_hydrogen_spec g pres W) as (HL & _). rewrite HL in L.
  destruct (label g n) as [a|] eqn:La; [|discriminate]. destruct (is_H a).
  - destruct (mem n (preserved g pres) || negb (has_heavy g n)); inversion L; subst. apply (A n b La).
  - inversion L; subst. cbn. apply (A n a La).
Qed.

Lemma smi_graph_wf (X : mgraph) hl : wf X -> wf (smi_graph X hl).
Proof. intros WX. destruct hl; [exact WX|apply ih_wf; exact WX]. Qed.
Lemma smi_graph_amap (X : mgraph) hl : wf X -> amap_id X -> amap_id (smi_graph X hl).
Proof. intros WX AX. destruct hl; [exact AX|apply ih_amap_id; assumption]. Qed.
Lemma smi_graph_geq5 (X Y : mgraph) hl : wf X -> wf Y -> geq5 X Y -> geq5 (smi_graph X hl) (smi_graph Y hl).
Proof. intros WX WY E. destruct hl; [exact E|apply implicit_hydrogen_geq5; assumption]. Qed.

(** * the pipeline theorem with explicit hydrogens *)
Section PipelineH.
Variable str : Type.
Variable rd_read : str -> option rmol.
Variable rd_write : wmol -> option str.
(** [ok g]: g is a graph RDKit writes and reads back unchanged ("RDKit-normal": consistent aromaticity, valences) *)
Variable ok : mgraph -> Prop.

(** RDKit contract R2 (four premises, written out in the theorem):
    P1 what RDKit reads is ok;  P2 ok depends only on the labelled graph (labels of the property + atom map + bonds);
    P3 folding explicit hydrogens into hydrogen counts keeps ok;  P4 an ok graph that RDKit writes reads back as itself *)
Definition R2 : Prop :=
  (forall s m, rd_read s = Some m -> ok (graph_of m)) /\
  (forall g g', ok g -> geq5 g' g -> ok g') /\
  (forall g pres, ok g -> wf g -> ok (implicit_hydrogen g pres)) /\
  (forall g w s, ok g -> wf g -> amap_id g -> graph_to_wmol g = Some w -> rd_write w = Some s ->
     exists m, rd_read s = Some m /\ rmol_ok m /\ geq_sel (graph_of m) g).

Theorem rsmi_pipeline_hydrogens : R2 ->
  forall r p mr mp, rd_read r = Some mr -> rd_read p = Some mp -> rmol_ok mr -> rmol_ok mp ->
  let G := graph_of mr in let H := graph_of mp in
  wf G -> wf H -> same_nodes G H -> orders_pos G -> orders_pos H ->
  forall J r' p', rsmi_to_its_s rd_read r p = Some J -> its_to_rsmi_s rd_write J = Some (r', p') ->
  J = its_construct G H /\
  exists mr' mp', rd_read r' = Some mr' /\ rd_read p' = Some mp' /\ rmol_ok mr' /\ rmol_ok mp' /\
                  geq_sel (graph_of mr') (smi_graph G (hlist J)) /\ geq_sel (graph_of mp') (smi_graph H (hlist J)).
Proof.
  intros (P1 & P2 & P3 & P4) r p mr mp Rr Rp Okr Okp G H WG WH S PG PH J r' p' E1 E2.
  rewrite (rsmi_to_its_read _ rd_read r p mr mp Rr Rp Okr Okp) in E1. inversion E1; subst J. clear E1.
  split; [reflexivity|].
  set (J := its_construct G H) in *. set (hl := hlist J).
  destruct (roundtrip G H WG WH S PG PH) as (R1g & A1 & R2h & A2).
  assert (wf (fst (its_decompose J)) /\ wf (snd (its_decompose J))) as [Wg Wh] by (split; apply dec_wf; apply its_wf; assumption).
  assert (geq5 (fst (its_decompose J)) G /\ geq5 (snd (its_decompose J)) H) as [Qg Qh]
    by (split; apply geq_sel_amap_geq5; auto; apply graph_of_amap_id; assumption).
  (* what is written on each side, and its relation to the input graph *)
  assert (forall (d X : mgraph), wf d -> wf X -> amap_id d -> geq5 d X -> ok X ->
            ok (smi_graph d hl) /\ wf (smi_graph d hl) /\ amap_id (smi_graph d hl) /\ geq_sel (smi_graph d hl) (smi_graph X hl)) as Side.
  { intros d X Wd WX Ad Q OkX. split; [|split; [apply smi_graph_wf; exact Wd|split; [apply smi_graph_amap; assumption|]]].
    - unfold smi_graph. destruct hl; [|apply P3; [|exact Wd]]; apply (P2 X d OkX Q).
    - apply geq5_geq_sel, smi_graph_geq5; assumption. }
  destruct (Side _ G Wg WG A1 Qg (P1 r mr Rr)) as (Og & Wg' & Ag' & Gg).
  destruct (Side _ H Wh WH A2 Qh (P1 p mp Rp)) as (Oh & Wh' & Ah' & Gh).
  destruct (its_to_rsmi_written _ rd_write false J r' p' E2) as (wr & wp & Wr & Wp & Ws1 & Ws2).
  unfold its_to_graphs_opt, its_to_graphs in Wr, Wp. cbn [fst snd] in Wr, Wp.
  destruct (P4 _ wr r' Og Wg' Ag' Wr Ws1) as (mr' & Rr' & Okr' & Gr).
  destruct (P4 _ wp p' Oh Wh' Ah' Wp Ws2) as (mp' & Rp' & Okp' & Gp).
  exists mr', mp'. split; [exact Rr'|]. split; [exact Rp'|]. split; [exact Okr'|]. split; [exact Okp'|].
  split; [exact (geq_sel_trans _ _ _ Gr Gg)|exact (geq_sel_trans _ _ _ Gp Gh)].
Qed.
End PipelineH.


(** * non-vacuity: the contract R2 has a model in which the writer really writes *)
Definition ex_ok (g : mgraph) : Prop := geq_sel g (graph_of ex_mr) \/ geq_sel g (graph_of ex_mp).

Lemma no_H_fold (g X : mgraph) pres : wf g -> geq_sel g X -> forallb (fun p => negb (is_H (snd p))) (gnodes X) = true ->
  geq_sel (implicit_hydrogen g pres) X.
Proof.
  intros W [GL GA] NoH. rewrite forallb_forall in NoH.
  assert (forall n, is_Hn g n = false) as Hn.
  { intros n. rewrite (geq_sel_is_Hn X g (conj GL GA)). unfold is_Hn. destruct (label X n) as [b|] eqn:LX; [|reflexivity].
    apply assoc_in, NoH, negb_true_iff in LX. exact LX. }
  assert (preserved g pres = []) as Pn.
  { destruct (preserved g pres) as [|h l] eqn:Ep; [reflexivity|]. exfalso.
    assert (In h (preserved g pres)) as Ih by (rewrite Ep; left; reflexivity).
    apply (preserved_isH g pres h W) in Ih. rewrite Hn in Ih. discriminate. }
  destruct (implicit_hydrogen_spec g pres W) as (L & A & _). split.
  - intros n. rewrite L, <- GL. destruct (label g n) as [a|] eqn:La; [|reflexivity].
    assert (is_H a = false) as Ha by (specialize (Hn n); unfold is_Hn in Hn; rewrite La in Hn; exact Hn).
    rewrite Ha. cbn. unfold sel4. cbn.
    assert (count_h g n = 0) as ->.
    { unfold count_h. rewrite (filter_nil (is_Hn g)); [reflexivity|intros x _; apply Hn]. }
    assert (count_pres g pres n = 0) as -> by (unfold count_pres; rewrite Pn; reflexivity).
    repeat f_equal. lia.
  - intros u v. rewrite A, <- GA. unfold ih_removed. rewrite !Hn. reflexivity.
Qed.

Example C01_R2_nonvacuous : R2 bool ex_read ex_write ex_ok.
Proof.
  split; [|split; [|split]].
  - intros s m Rd. unfold ex_read in Rd. destruct s; inversion Rd; [left|right]; split; reflexivity.
  - intros g g' Og Q. apply geq5_geq_sel in Q. destruct Og as [Og|Og]; [left|right]; eapply geq_sel_trans; eauto.
  - intros g pres Og W. destruct Og as [Og|Og]; [left|right]; apply no_H_fold; auto.
  - intros g w s Og W Am Gw Wr. destruct C01_R1_nonvacuous as [HR _].
    destruct Og as [Og|Og]; [apply (HR true ex_mr g w s eq_refl W Og Am Gw Wr)|apply (HR false ex_mp g w s eq_refl W Og Am Gw Wr)].
Qed.

(** the hypotheses on the reaction are satisfiable with a non-empty preserve list: hydrogenation of ethene with mapped H2 *)
Example C01_pipeline_hydrogens_nonvacuous :
  let G := graph_of ex_hr in let H := graph_of ex_hp in
  rmol_ok ex_hr /\ rmol_ok ex_hp /\ wf G /\ wf H /\ same_nodes G H /\ orders_pos G /\ orders_pos H /\
  hlist (its_construct G H) = [3; 4] /\ (exists w, its_to_wmols (its_construct G H) = Some w) /\
  smi_graph G (hlist (its_construct G H)) = implicit_hydrogen G [3; 4].
Proof.
  cbv zeta. destruct (reaction_okb_sound ex_hr ex_hp) as (O1 & O2 & WG & WH & S & PG & PH & _); [vm_compute; reflexivity|].
  repeat (split; [assumption|]).
  split; [reflexivity|]. split; [eexists; vm_compute; reflexivity|reflexivity].
Qed.
