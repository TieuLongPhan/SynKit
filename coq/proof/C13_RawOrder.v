(** C13 -- order independence on the caller's graphs: clustering the same raw items in ANY order gives the same partition
    (two items share a class in one run iff they do in the other -- iff their raw graphs are isomorphic). *)
From Coq Require Import List Permutation.
From SK Require Import lib.LGraph model.C13_Model model.C13_Trace proof.C13_Raw.
Import ListNotations.
Local Open Scope nat_scope.

Theorem order_independent_raw (c : ccfg) (mode : attr_mode) (data data' : list ritem) :
  Permutation data data' ->
  length (cc_defs c) = length (cc_names c) ->
  (forall x, In x data -> NoDup (node_ids (ri_graph x))) ->
  (forall x y, In x data -> In y data -> raw_isomorphic c (ri_graph x) (ri_graph y) ->
               gc_key mode (mk_item c x) = gc_key mode (mk_item c y)) ->
  let classes := gc_fit (item_iso true (cc_defs c)) mode (map (mk_item c) data) in
  let classes' := gc_fit (item_iso true (cc_defs c)) mode (map (mk_item c) data') in
  forall i j i' j' x y,
    nth_error data i = Some x -> nth_error data j = Some y ->
    nth_error data' i' = Some x -> nth_error data' j' = Some y ->
    exists ci cj ci' cj',
      nth_error classes i = Some (Some ci) /\ nth_error classes j = Some (Some cj) /\
      nth_error classes' i' = Some (Some ci') /\ nth_error classes' j' = Some (Some cj') /\
      (ci = cj <-> ci' = cj') /\ (ci = cj <-> raw_isomorphic c (ri_graph x) (ri_graph y)).
Proof.
  intros P EL Hnd Hattr classes classes' i j i' j' x y Hi Hj Hi' Hj'.
  destruct (raw_premises_perm c mode data data' P Hnd Hattr) as (Hnd' & Hattr').
  destruct (partition_raw c mode data EL Hnd Hattr) as (_ & H1).
  destruct (partition_raw c mode data' EL Hnd' Hattr') as (_ & H2).
  destruct (H1 i j x y Hi Hj) as (ci & cj & E1 & E2 & Iff1).
  destruct (H2 i' j' x y Hi' Hj') as (ci' & cj' & E1' & E2' & Iff2).
  exists ci, cj, ci', cj'. split; [exact E1|split; [exact E2|split; [exact E1'|split; [exact E2'|split; [|exact Iff1]]]]].
  rewrite Iff1, Iff2. reflexivity.
Qed.
