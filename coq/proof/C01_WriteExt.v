(** C01 — what its_to_rsmi hands to GraphToMol depends only on the label and bond maps of the ITS: the reaction centre,
    the list of its hydrogens (as a set), the folding of the other hydrogens.  Together with C01_RewriteProof this carries
    "every re-rooting / fragment reordering" through to the writer's input. *)
From Coq Require Import List NArith ZArith Bool Lia Arith.
From SK Require Import lib.LGraph lib.C01_GraphLemmas model.C01_Model model.C02_Model model.C01_String model.C01_Rewrite model.C01_Prem
  proof.C01_Proof proof.C02_Proof proof.C01_StringProof proof.C01_StringHyd proof.C01_StringHydExt proof.C01_StringPipe proof.C01_RenumWrite proof.C01_RewriteProof proof.C01_PremProof proof.C01_RewriteCheck.
Import ListNotations.
Local Open Scope Z_scope.

(** * the reaction centre *)
Lemma rc_keys_adj (g : its) k : wf g ->
  (In k (node_ids (get_rc g)) <->
   In k (node_ids g) /\ exists v x, adj g k v = Some x /\ (changed x = true \/ is_hh g k v = true)).
Proof.
  intros W. rewrite rc_keys. split.
  - intros (a & b & x & I & Hs & Hk & Ik). split; [exact Ik|]. destruct Hk as [-> | ->].
    + exists b, x. split; [apply (wf_in_adj W I)|exact Hs].
    + exists a, x. split; [rewrite adj_sym; apply (wf_in_adj W I)|]. rewrite is_hh_sym. exact Hs.
  - intros (Ik & v & x & A & Hs). apply (wf_adj_iff W) in A. destruct A as [A|A].
    + exists k, v, x. auto.
    + exists v, k, x. rewrite is_hh_sym. auto.
Qed.

Section RcExt.
Variables g g' : its.
Hypothesis W : wf g.
Hypothesis W' : wf g'.
Hypothesis E : geq g' g.

Lemma is_h_ext n : is_h g' n = is_h g n.
Proof. unfold is_h. destruct E as [L _]. rewrite L. reflexivity. Qed.

Lemma rc_keys_ext k : In k (node_ids (get_rc g')) <-> In k (node_ids (get_rc g)).
Proof.
  rewrite (rc_keys_adj g' k W'), (rc_keys_adj g k W). destruct E as [L A].
  rewrite (geq_node_ids g g' k L). unfold is_hh.
  split; intros (Ik & v & x & Ad & Hs); (split; [exact Ik|]); exists v, x.
  - rewrite <- A, <- !is_h_ext. auto.
  - rewrite A, !is_h_ext. auto.
Qed.

Lemma rc_label_ext n : label (get_rc g') n = label (get_rc g) n.
Proof.
  destruct E as [L A]. apply option_ext. intros b. split; intros Lb.
  - pose proof (label_some_node Lb) as Ik. apply rc_keys_ext in Ik.
    apply rc_label_sound in Lb. destruct Lb as (a & La & ->). rewrite L in La. apply rc_label_keys; assumption.
  - pose proof (label_some_node Lb) as Ik. apply rc_keys_ext in Ik.
    apply rc_label_sound in Lb. destruct Lb as (a & La & ->). rewrite <- L in La. apply rc_label_keys; assumption.
Qed.
End RcExt.

(** * the preserve list, as a set *)
Lemma hlist_ext (I I' : its) : wf I -> wf I' -> geq I' I -> forall z, In z (hlist I') <-> In z (hlist I).
Proof.
  intros W W' E z. rewrite (hlist_label I' z W'), (hlist_label I z W).
  split; intros (n & b & L & K); exists n, b; (split; [|exact K]).
  - rewrite <- (rc_label_ext I I' W W' E). exact L.
  - rewrite (rc_label_ext I I' W W' E). exact L.
Qed.

(** * implicit_hydrogen reads the preserve list as a set *)
Lemma memZ_members p p' z : (forall x, In x p <-> In x p') -> memZ z p = memZ z p'.
Proof. intros M. apply eq_true_iff_eq. rewrite !memZ_spec. apply M. Qed.

Lemma implicit_hydrogen_pres_set (g : mgraph) p p' : (forall x, In x p <-> In x p') -> implicit_hydrogen g p = implicit_hydrogen g p'.
Proof.
  intros M. assert (preserved g p = preserved g p') as EP.
  { unfold preserved. f_equal. apply filter_ext. intros [n a]. cbn [snd]. rewrite (memZ_members p p' _ M). reflexivity. }
  unfold implicit_hydrogen, ih_removed. rewrite EP. reflexivity.
Qed.

Lemma smi_graph_ext (g g' : mgraph) p p' : wf g -> wf g' -> geq g' g -> (forall x, In x p' <-> In x p) ->
  geq (smi_graph g' p') (smi_graph g p).
Proof.
  intros W W' [L A] M. destruct p as [|z p], p' as [|z' p'].
  - split; assumption.
  - exfalso. apply (proj1 (M z')). left. reflexivity.
  - exfalso. apply (proj2 (M z)). left. reflexivity.
  - cbn [smi_graph]. rewrite (implicit_hydrogen_pres_set g' (z' :: p') (z :: p) M).
    apply implicit_hydrogen_ext; assumption.
Qed.

(** * what its_to_rsmi hands to GraphToMol *)
Theorem its_to_graphs_ext (I I' : its) : wf I -> wf I' -> geq I' I ->
  geq (fst (its_to_graphs I')) (fst (its_to_graphs I)) /\ geq (snd (its_to_graphs I')) (snd (its_to_graphs I)).
Proof.
  intros W W' E. destruct (decompose_ext I I' W W' E) as [Eg Eh]. unfold its_to_graphs. cbn [fst snd].
  split; apply smi_graph_ext; try assumption; try (apply dec_wf; assumption); apply hlist_ext; assumption.
Qed.

(** ... for a reaction written with its sides re-rooted / reordered *)
Theorem rewritten_written sr sp mr mr' mp mp' :
  rewritten sr mr mr' -> rewritten sp mp mp' -> rmol_ok mr -> rmol_ok mr' -> rmol_ok mp -> rmol_ok mp' ->
  wf (graph_of mr) -> wf (graph_of mp) -> wf (graph_of mr') -> wf (graph_of mp') ->
  let I := its_construct (graph_of mr) (graph_of mp) in
  let I' := its_construct (graph_of mr') (graph_of mp') in
  (forall z, In z (hlist I') <-> In z (hlist I)) /\
  geq (fst (its_to_graphs I')) (fst (its_to_graphs I)) /\ geq (snd (its_to_graphs I')) (snd (its_to_graphs I)).
Proof.
  intros Rr Rp Or Or' Op Op' Wr Wp Wr' Wp' I I'.
  destruct (rewritten_its sr sp mr mr' mp mp' Rr Rp Or Or' Op Op' Wr Wp Wr' Wp') as (_ & _ & GI & _).
  assert (wf I /\ wf I') as [WI WI'] by (split; apply its_wf; assumption).
  split; [apply hlist_ext; assumption|apply its_to_graphs_ext; assumption].
Qed.

(** non-vacuity: hydrogenation of ethene with mapped H2 (C01_StringPipeH.ex_hr / ex_hp), product side with its atoms in another order *)
Definition ex_hp_rw : rmol :=
  RM [RA EL_H false 0 0 4%N [70%N]; RA 70%N false 2 0 2%N [70%N; EL_H]; RA 70%N false 2 0 1%N [70%N; EL_H]; RA EL_H false 0 0 3%N [70%N]]
     [(1%nat, 0%nat, 2); (3%nat, 2%nat, 2); (2%nat, 1%nat, 2)].
Definition ex_hs (i : nat) : nat := match i with 0 => 2 | 1 => 3 | 2 => 1 | 3 => 0 | n => n end%nat.

Example C01_rewritten_written_nonvacuous :
  rewritten ex_hs ex_hp ex_hp_rw /\ rewritten (fun i => i) ex_hr ex_hr /\ rmol_ok ex_hp_rw /\ wf (graph_of ex_hp_rw) /\
  hlist (its_construct (graph_of ex_hr) (graph_of ex_hp_rw)) = [3; 4] /\ hlist (its_construct (graph_of ex_hr) (graph_of ex_hp)) = [3; 4] /\
  gnodes (graph_of ex_hp_rw) <> gnodes (graph_of ex_hp) /\ gedges (graph_of ex_hp_rw) <> gedges (graph_of ex_hp).
Proof.
  split; [|split; [|split; [|split; [|split; [|split]]]]].
  - apply (rewritten_ext (s_of [2; 3; 1; 0]%nat)); [|apply rewrittenb_sound; vm_compute; reflexivity].
    intros i Hi. cbn in Hi. destruct i as [|[|[|[|i]]]]; try reflexivity. lia.
  - split; [reflexivity|]. split; [intros; assumption|]. split; [intros; assumption|]. split; [intros; left; assumption|].
    split; [intros i j o I; exists i, j; auto|].
    intros i j o I. cbn in I. destruct I as [I|[I|[]]]; inversion I; subst; cbn; lia.
  - apply (reaction_okb_sound ex_hr ex_hp_rw). vm_compute. reflexivity.
  - apply (reaction_okb_sound ex_hr ex_hp_rw). vm_compute. reflexivity.
  - vm_compute. reflexivity.
  - vm_compute. reflexivity.
  - split; discriminate.
Qed.

(** both halves of theorem C01_written_invariant in one statement *)
Lemma written_invariant_all :
  (forall I I' : its, wf I -> wf I' -> geq I' I ->
     (forall z, In z (hlist I') <-> In z (hlist I)) /\
     geq (fst (its_to_graphs I')) (fst (its_to_graphs I)) /\ geq (snd (its_to_graphs I')) (snd (its_to_graphs I))) /\
  (forall (sr sp : nat -> nat) (mr mr' mp mp' : rmol),
     rewritten sr mr mr' -> rewritten sp mp mp' -> rmol_ok mr -> rmol_ok mr' -> rmol_ok mp -> rmol_ok mp' ->
     wf (graph_of mr) -> wf (graph_of mp) -> wf (graph_of mr') -> wf (graph_of mp') ->
     let I := its_construct (graph_of mr) (graph_of mp) in
     let I' := its_construct (graph_of mr') (graph_of mp') in
     (forall z, In z (hlist I') <-> In z (hlist I)) /\
     geq (fst (its_to_graphs I')) (fst (its_to_graphs I)) /\ geq (snd (its_to_graphs I')) (snd (its_to_graphs I))).
Proof.
  split.
  - intros I I' W W' E. split; [apply hlist_ext; assumption|apply its_to_graphs_ext; assumption].
  - exact rewritten_written.
Qed.
