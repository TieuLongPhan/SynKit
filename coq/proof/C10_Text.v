(** C10 — proofs: the TEXT layer.  What NXToGML renders, GMLToNX tokenises back to exactly the entries of the
    record: text_parse (render name r) = Some (flatten r), hence the graphs read from the text are the graphs of the record
    layer (for which the round-trip theorems hold). *)
From Coq Require Import String List NArith ZArith Bool Lia.
From SK Require Import lib.LGraph lib.StrJoin model.C10_Model model.C10_Text proof.C10_Proof proof.C10_Views proof.C10_Build.
Import ListNotations.
Local Open Scope N_scope.

Lemma lstrip_ws a b : Forall (fun c => is_ws c = true) a -> lstrip (a ++ b) = lstrip b.
Proof. induction 1 as [|c r Hc Hr IH]; simpl; [reflexivity|]. rewrite Hc. exact IH. Qed.
Lemma lstrip_head c r : is_ws c = false -> lstrip (c :: r) = c :: r.
Proof. intros H. simpl. rewrite H. reflexivity. Qed.
Lemma strip_gen pre x c z : Forall (fun y => is_ws y = true) pre ->
  hd_error x = Some c -> is_ws c = false -> hd_error (rev x) = Some z -> is_ws z = false -> strip (pre ++ x) = x.
Proof.
  intros Hp Hc Wc Hz Wz. unfold strip. rewrite (lstrip_ws pre _ Hp).
  destruct x as [|c' r]; [discriminate|]. injection Hc as ->. rewrite (lstrip_head c _ Wc).
  destruct (rev (c :: r)) as [|z' t] eqn:E; [discriminate|]. injection Hz as ->. rewrite (lstrip_head z _ Wz), <- E, rev_involutive. reflexivity.
Qed.
(** a string between a non-blank first and a non-blank last character, indented by blanks *)
Lemma strip_indent pre c mid z : Forall (fun x => is_ws x = true) pre -> is_ws c = false -> is_ws z = false ->
  strip (pre ++ c :: mid ++ [z]) = c :: mid ++ [z].
Proof.
  intros Hp Hc Hz. apply (strip_gen pre (c :: mid ++ [z]) c z Hp eq_refl Hc); [|exact Hz].
  change (c :: mid ++ [z]) with ((c :: mid) ++ [z]). rewrite rev_app_distr. reflexivity.
Qed.

(** ** str.split() *)
Definition nows (t : str) : Prop := Forall (fun c => is_ws c = false) t.
Lemma words_aux_nows t : forall cur rest, nows t -> words_aux cur (t ++ rest) = words_aux (rev t ++ cur) rest.
Proof.
  induction t as [|c r IH]; intros cur rest H; [reflexivity|]. inversion H as [|? ? Hc Hr]; subst. simpl. rewrite Hc.
  rewrite IH by exact Hr. rewrite <- app_assoc. reflexivity.
Qed.
Lemma words_join toks : Forall (fun t => t <> [] /\ nows t) toks -> words (join 32 toks) = toks.
Proof.
  unfold words. induction toks as [|x r IH]; intros H; [reflexivity|]. inversion H as [|? ? [Hne Hx] Hr]; subst.
  destruct r as [|y r'].
  - simpl join. replace x with (x ++ []) at 1 by apply app_nil_r. rewrite words_aux_nows by exact Hx. rewrite app_nil_r. simpl.
    destruct (rev x) eqn:E; [apply (f_equal (@rev N)) in E; rewrite rev_involutive in E; simpl in E; congruence|].
    rewrite <- E, rev_involutive. reflexivity.
  - change (join 32 (x :: y :: r')) with (x ++ 32 :: join 32 (y :: r')). rewrite words_aux_nows by exact Hx. rewrite app_nil_r. simpl.
    destruct (rev x) eqn:E; [apply (f_equal (@rev N)) in E; rewrite rev_involutive in E; simpl in E; congruence|].
    rewrite <- E, rev_involutive. f_equal. apply IH. exact Hr.
Qed.

(** ** decimal numbers as tokens *)
Lemma dec_digits n : forallb is_digit (dec_of_N n) = true.
Proof. apply forallb_forall. intros c Hc. pose proof (uint_codes_digits (N.to_uint n)) as H. rewrite Forall_forall in H. apply H. exact Hc. Qed.
Lemma digit_nows c : is_digit c = true -> is_ws c = false.
Proof.
  unfold is_digit, is_ws. intros H. apply andb_true_iff in H as [H1 _]. apply N.leb_le in H1.
  apply orb_false_iff. split; apply andb_false_iff; right; apply N.leb_gt; lia.
Qed.
Lemma dec_tok n : dec_of_N n <> [] /\ nows (dec_of_N n).
Proof.
  split; [apply dec_of_N_nonnil|]. apply Forall_forall. intros c Hc. apply digit_nows.
  pose proof (dec_digits n) as H. rewrite forallb_forall in H. apply H. exact Hc.
Qed.
Lemma parse_nat_dec n : parse_nat (dec_of_N n) = Some n.
Proof.
  unfold parse_nat. destruct (dec_of_N n) eqn:E; [exfalso; apply (dec_of_N_nonnil n); exact E|].
  rewrite <- E, dec_digits, N_of_dec_of_N. reflexivity.
Qed.
(** a number is never one of the key words (they start with a letter) *)
Lemma dec_neq_kw n k r : is_digit k = false -> str_eqb (dec_of_N n) (k :: r) = false.
Proof.
  intros Hk. destruct (dec_of_N n) as [|d t] eqn:E; [reflexivity|]. simpl.
  pose proof (dec_digits n) as H. rewrite E in H. simpl in H. apply andb_true_iff in H as [Hd _].
  destruct (N.eqb_spec d k) as [->|]; [congruence|reflexivity].
Qed.

Lemma dec_neq_label n : str_eqb (dec_of_N n) k_label = false.
Proof. exact (dec_neq_kw n 108 _ eq_refl). Qed.
Lemma dec_neq_target n : str_eqb (dec_of_N n) k_target = false.
Proof. exact (dec_neq_kw n 116 _ eq_refl). Qed.

Lemma drop_q_noq l rest : Forall (fun c => N.eqb c 34 = false) l -> l <> [] -> drop_q (l ++ rest) = l ++ rest.
Proof. intros H Hne. destruct l as [|c r]; [congruence|]. inversion H; subst. simpl. rewrite H2. reflexivity. Qed.
Lemma strip_quotes_quoted l : Forall (fun c => N.eqb c 34 = false) l -> strip_quotes (quoted l) = l.
Proof.
  intros H. destruct l as [|c r]; [reflexivity|].
  unfold strip_quotes, quoted.
  assert (drop_q (34 :: (c :: r) ++ [34]) = (c :: r) ++ [34]) as E1.
  { change (drop_q (34 :: (c :: r) ++ [34])) with (drop_q ((c :: r) ++ [34])). apply drop_q_noq; [exact H|discriminate]. }
  rewrite E1, rev_app_distr. change (rev [34] ++ rev (c :: r)) with (34 :: rev (c :: r)).
  change (drop_q (34 :: rev (c :: r))) with (drop_q (rev (c :: r))).
  assert (Forall (fun c0 => N.eqb c0 34 = false) (rev (c :: r))) as Hr by (apply Forall_rev; exact H).
  assert (rev (c :: r) <> []) as Hn by (intros E; apply (f_equal (@rev N)) in E; rewrite rev_involutive in E; discriminate).
  pose proof (drop_q_noq (rev (c :: r)) [] Hr Hn) as E2. rewrite app_nil_r in E2. rewrite E2, rev_involutive. reflexivity.
Qed.

(** ** one entry line *)
Lemma join_snoc sep xs z : xs <> [] -> join sep (xs ++ [z]) = join sep xs ++ sep :: z.
Proof.
  induction xs as [|x r IH]; intros H; [congruence|]. destruct r as [|y r'].
  - reflexivity.
  - change (join sep ((x :: y :: r') ++ [z])) with (x ++ sep :: join sep ((y :: r') ++ [z])).
    rewrite IH by discriminate. change (join sep (x :: y :: r')) with (x ++ sep :: join sep (y :: r')). rewrite <- app_assoc. reflexivity.
Qed.
Lemma rev_join_close sep xs : xs <> [] -> hd_error (rev (join sep (xs ++ [k_close]))) = Some 93.
Proof. intros H. rewrite join_snoc by exact H. rewrite rev_app_distr. reflexivity. Qed.

Lemma label_ok_spec l : label_okb l = true -> nows l /\ Forall (fun c => N.eqb c 34 = false) l.
Proof.
  unfold label_okb. rewrite forallb_forall. intros H. split; apply Forall_forall; intros c Hc; specialize (H c Hc);
    apply andb_true_iff in H as [H1 H2]; apply negb_true_iff in H1, H2; assumption.
Qed.
Lemma quoted_tok l : nows l -> quoted l <> [] /\ nows (quoted l).
Proof.
  intros H. split; [discriminate|]. unfold quoted. constructor; [reflexivity|]. apply Forall_app. split; [exact H|repeat constructor].
Qed.
Lemma kw_tok k : forallb (fun c => negb (is_ws c)) k = true -> k <> [] -> k <> [] /\ nows k.
Proof. intros H Hn. split; [exact Hn|]. apply Forall_forall. intros c Hc. rewrite forallb_forall in H. apply negb_true_iff, H, Hc. Qed.

Lemma ent_toks_ok e : nows (ent_label e) -> Forall (fun t => t <> [] /\ nows t) (ent_toks e).
Proof.
  intros Hw. destruct e as [id l|s t l]; simpl ent_toks; simpl in Hw;
    repeat (apply Forall_cons; [first [exact (dec_tok _)|exact (quoted_tok l Hw)|(split; [discriminate|repeat constructor])]|]);
    apply Forall_nil.
Qed.

Lemma parse_element_node id l : label_okb l = true ->
  parse_element (join 32 (ent_toks (GNode id l))) = Some (GNode id l).
Proof.
  intros Hl. destruct (label_ok_spec l Hl) as [Hw Hq]. unfold parse_element.
  rewrite (words_join _ (ent_toks_ok (GNode id l) Hw)).
  assert (contains k_node (join 32 (ent_toks (GNode id l))) = true) as -> by reflexivity.
  assert (tok_after k_id (ent_toks (GNode id l)) = Some (dec_of_N id)) as -> by reflexivity.
  assert (tok_after k_label (ent_toks (GNode id l)) = Some (quoted l)) as ->.
  { unfold tok_after, ent_toks. cbn [tok_index]. change (str_eqb k_node k_label) with false. change (str_eqb (s2l "[") k_label) with false.
    change (str_eqb k_id k_label) with false. cbv iota. rewrite (dec_neq_label id). change (str_eqb k_label k_label) with true. reflexivity. }
  rewrite parse_nat_dec, strip_quotes_quoted by exact Hq. reflexivity.
Qed.

Lemma parse_element_edge s t l : label_okb l = true -> contains k_node (join 32 (ent_toks (GEdge s t l))) = false ->
  parse_element (join 32 (ent_toks (GEdge s t l))) = Some (GEdge s t l).
Proof.
  intros Hl Hn. destruct (label_ok_spec l Hl) as [Hw Hq]. unfold parse_element. rewrite Hn.
  rewrite (words_join _ (ent_toks_ok (GEdge s t l) Hw)).
  assert (contains k_edge (join 32 (ent_toks (GEdge s t l))) = true) as -> by reflexivity.
  assert (tok_after k_source (ent_toks (GEdge s t l)) = Some (dec_of_N s)) as -> by reflexivity.
  assert (tok_after k_target (ent_toks (GEdge s t l)) = Some (dec_of_N t)) as ->.
  { unfold tok_after, ent_toks. cbn [tok_index]. change (str_eqb k_edge k_target) with false. change (str_eqb (s2l "[") k_target) with false.
    change (str_eqb k_source k_target) with false. cbv iota. rewrite (dec_neq_target s). change (str_eqb k_target k_target) with true. reflexivity. }
  assert (tok_after k_label (ent_toks (GEdge s t l)) = Some (quoted l)) as ->.
  { unfold tok_after, ent_toks. cbn [tok_index]. change (str_eqb k_edge k_label) with false. change (str_eqb (s2l "[") k_label) with false.
    change (str_eqb k_source k_label) with false. cbv iota. rewrite (dec_neq_label s). change (str_eqb k_target k_label) with false. cbv iota.
    rewrite (dec_neq_label t). change (str_eqb k_label k_label) with true. reflexivity. }
  rewrite !parse_nat_dec, strip_quotes_quoted by exact Hq. reflexivity.
Qed.

Lemma ent_line_strip e : strip (ent_line e) = join 32 (ent_toks e).
Proof.
  unfold ent_line. destruct e as [id l|s t l].
  - apply (strip_gen _ _ 110 93); [repeat constructor|reflexivity|reflexivity| |reflexivity].
    change (ent_toks (GNode id l)) with ([k_node; s2l "["; k_id; dec_of_N id; k_label; quoted l] ++ [k_close]).
    apply rev_join_close. discriminate.
  - apply (strip_gen _ _ 101 93); [repeat constructor|reflexivity|reflexivity| |reflexivity].
    change (ent_toks (GEdge s t l)) with ([k_edge; s2l "["; k_source; dec_of_N s; k_target; dec_of_N t; k_label; quoted l] ++ [k_close]).
    apply rev_join_close. discriminate.
Qed.

Lemma ent_step e cur acc s : ent_okb e = true -> sec_of_str cur = Some s ->
  text_step (Some (Some cur, acc)) (ent_line e) = Some (Some cur, acc ++ [(s, e)]).
Proof.
  intros Hok Hs. unfold text_step. rewrite ent_line_strip.
  unfold ent_okb in Hok. apply andb_true_iff in Hok. destruct Hok as [Hok K4]. apply andb_true_iff in Hok. destruct Hok as [Hok K3].
  apply andb_true_iff in Hok. destruct Hok as [Hok K2]. apply andb_true_iff in Hok. destruct Hok as [Hl K1].
  apply negb_true_iff in K1, K2, K3.
  assert (starts_with k_rule (join 32 (ent_toks e)) = false) as F1 by (destruct e; reflexivity).
  assert (str_eqb (join 32 (ent_toks e)) k_close = false) as F2 by (destruct e; reflexivity).
  assert (starts_with k_node (join 32 (ent_toks e)) || starts_with k_edge (join 32 (ent_toks e)) = true) as F3 by (destruct e; reflexivity).
  assert (parse_element (join 32 (ent_toks e)) = Some e) as F4.
  { destruct e as [id l|a b l]; [apply parse_element_node; exact Hl|]. apply negb_true_iff in K4. apply parse_element_edge; assumption. }
  revert F1 F2 F3 F4 K1 K2 K3. generalize (join 32 (ent_toks e)). intros J F1 F2 F3 F4 K1 K2 K3.
  rewrite F1, F2, K1, K2, K3, F3, F4, Hs. reflexivity.
Qed.

Lemma sec_of_name s : sec_of_str (sec_name s) = Some s.
Proof. destruct s; reflexivity. Qed.

Lemma ents_fold es : forall cur acc s, Forall (fun e => ent_okb e = true) es -> sec_of_str cur = Some s ->
  fold_left text_step (map ent_line es) (Some (Some cur, acc)) = Some (Some cur, acc ++ map (pair s) es).
Proof.
  induction es as [|e r IH]; intros cur acc s H Hs; cbn [map fold_left]; [rewrite app_nil_r; reflexivity|].
  inversion H; subst. rewrite (ent_step e cur acc s) by assumption. rewrite (IH cur _ s) by assumption.
  rewrite <- app_assoc. reflexivity.
Qed.

Lemma sec_fold sc cur acc : Forall (fun e => ent_okb e = true) (snd sc) ->
  fold_left text_step (sec_lines sc) (Some (cur, acc)) = Some (Some (sec_name (fst sc)), acc ++ map (pair (fst sc)) (snd sc)).
Proof.
  intros H. unfold sec_lines. cbn [fold_left].
  assert (text_step (Some (cur, acc)) (s2l "   " ++ sec_name (fst sc) ++ s2l " [") = Some (Some (sec_name (fst sc)), acc)) as ->
    by (destruct (fst sc); reflexivity).
  rewrite fold_left_app, (ents_fold (snd sc) _ acc (fst sc) H (sec_of_name (fst sc))). reflexivity.
Qed.

Lemma secs_fold r : forall cur acc, Forall (fun sc : gsec * list gent => Forall (fun e => ent_okb e = true) (snd sc)) r ->
  exists cur', fold_left text_step (flat_map sec_lines r) (Some (cur, acc)) = Some (cur', acc ++ flatten r).
Proof.
  induction r as [|sc r IH]; intros cur acc H; cbn [flat_map fold_left].
  - exists cur. unfold flatten. simpl. rewrite app_nil_r. reflexivity.
  - inversion H; subst. rewrite fold_left_app, (sec_fold sc cur acc) by assumption.
    destruct (IH (Some (sec_name (fst sc))) (acc ++ map (pair (fst sc)) (snd sc))) as [c' E]; [assumption|].
    exists c'. rewrite E. unfold flatten. simpl. rewrite <- app_assoc. reflexivity.
Qed.

(** ** the lines of a rendered rule *)
Definition nonl (s : str) : bool := negb (existsb (N.eqb 10) s).
Lemma nonl_nosep s : nonl s = true -> nosep 10 s.
Proof.
  unfold nonl, nosep. intros H Hin. apply negb_true_iff in H. assert (existsb (N.eqb 10) s = true); [|congruence].
  apply existsb_exists. exists 10. split; [exact Hin|reflexivity].
Qed.
Lemma nosep_app a b : nosep 10 a -> nosep 10 b -> nosep 10 (a ++ b).
Proof. unfold nosep. intros Ha Hb Hin. apply in_app_iff in Hin. tauto. Qed.
Lemma nosep_join toks : Forall (nosep 10) toks -> nosep 10 (join 32 toks).
Proof.
  induction 1 as [|x r Hx Hr IH]; [intros []|]. destruct r as [|y r']; [exact Hx|].
  change (join 32 (x :: y :: r')) with (x ++ 32 :: join 32 (y :: r')). apply nosep_app; [exact Hx|].
  intros [E|Hin]; [discriminate|]. apply IH. exact Hin.
Qed.
Lemma nows_nosep l : nows l -> nosep 10 l.
Proof. intros H Hin. unfold nows in H. rewrite Forall_forall in H. specialize (H 10 Hin). discriminate. Qed.
Lemma ent_line_nosep e : label_okb (ent_label e) = true -> nosep 10 (ent_line e).
Proof.
  intros Hl. destruct (label_ok_spec _ Hl) as [Hw _]. unfold ent_line. apply nosep_app; [apply nonl_nosep; reflexivity|].
  apply nosep_join. apply (Forall_impl _ (fun t H => nows_nosep t (proj2 H)) (ent_toks_ok e Hw)).
Qed.
Lemma ent_okb_label e : ent_okb e = true -> label_okb (ent_label e) = true.
Proof. unfold ent_okb. intros H. repeat (apply andb_true_iff in H; destruct H as [H _]). exact H. Qed.

Lemma render_lines_nosep name r : nosep 10 name -> rec_okb r = true -> Forall (nosep 10) (render_lines name r).
Proof.
  intros Hn Hr. unfold render_lines. constructor; [apply nonl_nosep; reflexivity|]. constructor.
  { apply nosep_app; [apply nonl_nosep; reflexivity|]. unfold quoted. intros [E|Hin]; [discriminate|].
    apply in_app_iff in Hin. destruct Hin as [Hin|[E|[]]]; [apply Hn; exact Hin|discriminate]. }
  apply Forall_app. split; [|repeat constructor; apply nonl_nosep; reflexivity].
  apply Forall_forall. intros ln Hin. apply in_flat_map in Hin. destruct Hin as (sc & Hsc & Hl).
  unfold rec_okb in Hr. rewrite forallb_forall in Hr. specialize (Hr sc Hsc). rewrite forallb_forall in Hr.
  unfold sec_lines in Hl. destruct Hl as [<-|Hl]; [destruct (fst sc); apply nonl_nosep; reflexivity|].
  apply in_app_iff in Hl. destruct Hl as [Hl|[<-|[]]]; [|apply nonl_nosep; reflexivity].
  apply in_map_iff in Hl. destruct Hl as (e & <- & He). apply ent_line_nosep, ent_okb_label, Hr, He.
Qed.

Lemma text_lines_render name r : nosep 10 name -> rec_okb r = true -> text_lines (render name r) = render_lines name r.
Proof.
  intros Hn Hr. unfold text_lines, render. apply split_all_join; [apply render_lines_nosep; assumption|discriminate|apply le_n].
Qed.

Theorem text_roundtrip name r : nosep 10 name -> rec_okb r = true -> text_parse (render name r) = Some (flatten r).
Proof.
  intros Hn Hr. unfold text_parse. rewrite (text_lines_render name r Hn Hr). unfold render_lines. cbn [fold_left].
  assert (text_step (Some (None, [])) (s2l "rule [") = Some (None, [])) as -> by reflexivity.
  assert (text_step (Some (None, [])) (s2l "   ruleID " ++ quoted name) = Some (None, [])) as ->.
  { unfold text_step. change (s2l "   ruleID " ++ quoted name) with (s2l "   " ++ (s2l "ruleID " ++ quoted name)).
    rewrite (strip_gen (s2l "   ") (s2l "ruleID " ++ quoted name) 114 34); [reflexivity|repeat constructor|reflexivity|reflexivity| |reflexivity].
    unfold quoted. rewrite rev_app_distr. change (rev (34 :: name ++ [34])) with (rev (name ++ [34]) ++ [34]). rewrite rev_app_distr. reflexivity. }
  rewrite fold_left_app.
  assert (Forall (fun sc : gsec * list gent => Forall (fun e => ent_okb e = true) (snd sc)) r) as HF.
  { unfold rec_okb in Hr. rewrite forallb_forall in Hr. apply Forall_forall. intros sc Hsc. apply Forall_forall. intros e He.
    specialize (Hr sc Hsc). rewrite forallb_forall in Hr. apply Hr, He. }
  destruct (secs_fold r None [] HF) as [cur' E]. rewrite E. reflexivity.
Qed.

(** ** one entry per section step = the whole section at once *)
Definition sec_stepF (st : gr * gr * gr) (sc : gsec * list gent) : gr * gr * gr :=
  sec_set (fst sc) st (fold_left parse_entry (snd sc) (sec_sel (fst sc) st)).
Lemma sel_set s st g : sec_sel s (sec_set s st g) = g.
Proof. destruct st as [[l c] r], s; reflexivity. Qed.
Lemma set_set s st g g' : sec_set s (sec_set s st g) g' = sec_set s st g'.
Proof. destruct st as [[l c] r], s; reflexivity. Qed.
Lemma set_sel s st : sec_set s st (sec_sel s st) = st.
Proof. destruct st as [[l c] r], s; reflexivity. Qed.
Lemma singles_fold s es : forall st, fold_left sec_stepF (singletons (map (pair s) es)) st = sec_stepF st (s, es).
Proof.
  induction es as [|e r IH]; intros st; [unfold sec_stepF; simpl; rewrite set_sel; reflexivity|].
  cbn [map singletons fold_left]. change (singletons (map (pair s) r)) with (map (fun p : gsec * gent => (fst p, [snd p])) (map (pair s) r)) in IH.
  rewrite IH. unfold sec_stepF. simpl fst. simpl snd. simpl fold_left at 2. rewrite sel_set, set_set. reflexivity.
Qed.
Lemma flatten_fold r : forall st, fold_left sec_stepF (singletons (flatten r)) st = fold_left sec_stepF r st.
Proof.
  induction r as [|[s es] r IH]; intros st; [reflexivity|]. unfold flatten. cbn [flat_map fst snd]. unfold singletons. rewrite map_app, fold_left_app.
  fold (singletons (map (pair s) es)). rewrite singles_fold. cbn [fold_left]. apply IH.
Qed.
Theorem gml_to_nx_flatten r : gml_to_nx (singletons (flatten r)) = gml_to_nx r.
Proof. unfold gml_to_nx. change (fun st sc => sec_set (fst sc) st (fold_left parse_entry (snd sc) (sec_sel (fst sc) st))) with sec_stepF. rewrite flatten_fold. reflexivity. Qed.

(** reading the rendered text = reading the record *)
Theorem text_to_nx_render name r : nosep 10 name -> rec_okb r = true -> text_to_nx (render name r) = Some (gml_to_nx r).
Proof. intros Hn Hr. unfold text_to_nx. rewrite (text_roundtrip name r Hn Hr). simpl. rewrite gml_to_nx_flatten. reflexivity. Qed.

(** ** non-vacuity, and the labels the theorem excludes *)
Local Open Scope string_scope.
Definition ex_rec : grec :=
  [(SLeft, [GEdge 1 2 (s2l "#"); GEdge 2 10 (s2l "="); GNode 10 (s2l "Fe3+")]); (SContext, [GNode 1 (s2l "C"); GNode 2 (s2l "N")]);
   (SRight, [GEdge 1 2 (s2l ":"); GNode 10 (s2l "Fe2+")])].
Example text_roundtrip_ex :
  rec_okb ex_rec = true /\ List.length (render (s2l "my rule") ex_rec) = 335%nat /\
  text_parse (render (s2l "my rule") ex_rec) = Some (flatten ex_rec) /\
  text_to_nx (render (s2l "left") ex_rec) = Some (gml_to_nx ex_rec).
Proof. vm_compute. repeat split. Qed.
(** a label that spells a section keyword is outside the domain, and indeed is not read back: the line is taken for a
    section header *)
Definition ex_rec_bad : grec := [(SLeft, [GNode 1 (s2l "Cleft")]); (SContext, []); (SRight, [])].
Example text_roundtrip_needs_ok :
  rec_okb ex_rec_bad = false /\ text_parse (render (s2l "r") ex_rec_bad) <> Some (flatten ex_rec_bad).
Proof. split; [reflexivity|vm_compute; discriminate]. Qed.
(** the rule the writer produces for the centre of proof/C10_GmlWrite.v is inside the domain *)
