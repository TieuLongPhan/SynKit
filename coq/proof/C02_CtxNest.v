(** C02 — contexts nest: for 1 <= k <= k', extracting the radius-k context from the radius-k' context gives the radius-k
    context of the ITS (same atoms with the same labels, same bonds). *)
From Coq Require Import List NArith ZArith Bool Lia.
From SK Require Import lib.LGraph lib.C01_GraphLemmas model.C01_Model model.C02_Model model.C02_Store proof.C02_Proof
                       proof.C02_CtxCentre proof.C02_Ball.
Import ListNotations.
Local Open Scope Z_scope.

Theorem ctx_of_ctx (g : its) : wf g -> forall k k', (1 <= k)%nat -> (k <= k')%nat ->
  geq (extract_k (extract_k g k') k) (extract_k g k).
Proof.
  intros W k k' Hk Hkk. destruct k as [|k]; [lia|]. destruct k' as [|k']; [lia|].
  change (geq (ball_sub (extract_k g (S k')) (node_ids (get_rc (extract_k g (S k')))) (S k)) (ball_sub g (node_ids (get_rc g)) (S k))).
  apply ball_of_ball; [exact W|apply rc_keys_in|apply geq_node_ids, rc_of_context; [exact W|lia]|exact Hkk].
Qed.

Example C02_ctx_of_ctx_nonvacuous :
  geq (extract_k (extract_k ex_its 3) 1) (extract_k ex_its 1) /\
  length (gnodes (extract_k ex_its 3)) = 8%nat /\ length (gnodes (extract_k ex_its 1)) = 6%nat.
Proof. split; [apply ctx_of_ctx; [apply ex_its_wf|lia|lia]|split; vm_compute; reflexivity]. Qed.
