(** C10 — proofs: attribute selections (node_attrs / edge_attrs).  The model is a pure function of its
    arguments, so a conversion cannot depend on what was converted before; these lemmas say what a selection does and
    which selections leave the way back to RDKit untouched. *)
From Coq Require Import String List NArith ZArith Bool Lia.
From SK Require Import lib.LGraph lib.StrJoin model.C10_Model proof.C10_Views proof.C10_Build proof.C10_Copy.
Import ListNotations.
Local Open Scope Z_scope.

Lemma sel_natt_all a : sel_natt asel_all a = a.
Proof. destruct a; reflexivity. Qed.
Lemma sel_graph_all (g : gr) : (forall e, In e (gedges g) -> True) -> sel_graph asel_all true g = g.
Proof.
  intros _. destruct g as [ns es]. unfold sel_graph. simpl. f_equal.
  - induction ns as [|[n a] r IH]; [reflexivity|]. simpl. rewrite sel_natt_all, IH. reflexivity.
  - induction es as [|[[u v] x] r IH]; [reflexivity|]. simpl. rewrite IH. destruct x; reflexivity.
Qed.
(** keeping everything (node_attrs=None / the full list) is the unselected conversion *)
Theorem select_all m drop ui : mol_to_graph_sel m drop ui asel_all true = mol_to_graph m drop ui.
Proof. unfold mol_to_graph_sel. apply sel_graph_all. auto. Qed.

Definition asel_and (s t : asel) : asel :=
  AS (k_el s && k_el t) (k_ar s && k_ar t) (k_hc s && k_hc t) (k_ch s && k_ch t) (k_am s && k_am t).
Lemma pick_pick {A} b c (x : option A) : pick b (pick c x) = pick (b && c) x.
Proof. destruct b, c; reflexivity. Qed.
(** selecting twice = selecting the intersection (so the ORDER of two selections does not matter) *)
Theorem select_twice s t ks kt (g : gr) : sel_graph s ks (sel_graph t kt g) = sel_graph (asel_and s t) (ks && kt) g.
Proof.
  destruct g as [ns es]. unfold sel_graph. simpl. rewrite !map_map. f_equal.
  - apply map_ext. intros [n a]. simpl. unfold sel_natt, asel_and. simpl. rewrite !pick_pick. reflexivity.
  - apply map_ext. intros [[u v] x]. simpl. rewrite pick_pick. reflexivity.
Qed.

(** node ids, node order and the bond pairs never depend on the selection *)
Lemma node_ids_sel s k (g : gr) : node_ids (sel_graph s k g) = node_ids g.
Proof. unfold node_ids, sel_graph. simpl. rewrite map_map. reflexivity. Qed.
Lemma edges_iter_sel s k (g : gr) :
  edges_iter (sel_graph s k g) = map (fun e : N * N * eatt => (fst e, EA (pick k (e_ord (snd e))) (e_std (snd e)))) (edges_iter g).
Proof. unfold edges_iter. rewrite node_ids_sel. apply (edges_from_map_att (fun x => EA (pick k (e_ord x)) (e_std x))). Qed.

(** what GraphToMol reads: element, charge, atom_map, hcount, order.  A selection that keeps these (aromatic may go: RDKit
    re-perceives it) hands RDKit back exactly the same molecule — in particular the default selection of smiles_to_graph *)
Theorem graph_to_mol_sel s (g : gr) :
  k_el s = true -> k_hc s = true -> k_ch s = true -> k_am s = true ->
  graph_to_mol (sel_graph s true g) = graph_to_mol g.
Proof.
  intros H1 H2 H3 H4. unfold graph_to_mol. rewrite node_ids_sel, edges_iter_sel, map_map.
  assert (forall e : N * N * eatt, g2m_bond (node_ids g) (fst e, EA (pick true (e_ord (snd e))) (e_std (snd e))) = g2m_bond (node_ids g) e) as Hb.
  { intros [[u v] x]. reflexivity. }
  rewrite (map_ext _ _ Hb).
  assert (map (fun p : N * natt => g2m_atom (snd p)) (gnodes (sel_graph s true g)) = map (fun p : N * natt => g2m_atom (snd p)) (gnodes g)) as ->; [|reflexivity].
  unfold sel_graph. simpl. rewrite map_map. apply map_ext. intros [n a]. simpl. unfold g2m_atom, sel_natt. simpl. rewrite H1, H2, H3, H4. reflexivity.
Qed.

(** ... and a selection that drops the charge does not (witness: the acetate ion read as acetic acid radical) *)
Local Open Scope string_scope.
Definition ex_ion : rmol := ([RAt (s2l "C") false 3 0 0; RAt (s2l "O") false 0 (-1) 0], [(0%N, 1%N, 2)]).
Example select_charge_matters :
  graph_to_mol (mol_to_graph_sel ex_ion false false (AS true true true false true) true)
  <> graph_to_mol (mol_to_graph ex_ion false false) /\
  graph_to_mol (mol_to_graph_sel ex_ion false false (AS true false true true true) true)
  = graph_to_mol (mol_to_graph ex_ion false false).
Proof. split; [vm_compute; discriminate|reflexivity]. Qed.

(** ** graph_to_smi with a non-empty preserve list.  [graph_to_smi_mol_old] models SynKit before commit 3ba7a77 (finding
    graph_to_smi:preserve_atom_maps:bare-hydrogen-dropped): hydrogens without a heavy neighbour are dropped, H2 becomes the empty
    molecule; [graph_to_smi_mol] hands RDKit the same H2 with or without a preserve list *)
Definition ex_h2m : gr :=
  LG [(1%N, NA (Some s_H) (Some false) (Some 0) (Some 0) (Some 0) None); (2%N, NA (Some s_H) (Some false) (Some 0) (Some 0) (Some 0) None)]
     [(1%N, 2%N, EA (Some (OS 2)) None)].
Theorem preserve_bare_h_old_refuted :
  exists (g : gr) (pres : list Z), gwfb g = true /\ total_h g = 2 /\
    graph_to_smi_mol_old g [] <> Some ([], []) /\ graph_to_smi_mol_old g pres = Some ([], []).
Proof. exists ex_h2m, [3]. vm_compute. repeat split; discriminate. Qed.
Example preserve_bare_h_kept_ex : graph_to_smi_mol ex_h2m [3] = graph_to_smi_mol ex_h2m [] /\ graph_to_smi_mol ex_h2m [] <> Some ([], []).
Proof. vm_compute. split; [reflexivity|discriminate]. Qed.

(** ** NXToGML.transform(attributes=...): the default ["charge"] is the writer of the round-trip theorems *)
Lemma find_changed_sel_charge Lg Rg : find_changed_sel asel_charge Lg Rg = find_changed Lg Rg.
Proof.
  unfold find_changed_sel, find_changed. apply flat_map_ext. intros [n a]. simpl. destruct (label Rg n) as [b|]; [|reflexivity].
  unfold natt_diff, asel_charge, opt_eqb. simpl. destruct (a_ch a) as [z|], (a_ch b) as [z0|]; try reflexivity. destruct (Z.eqb z z0); reflexivity.
Qed.
Theorem nx_to_gml_sel_charge Lg Rg Kg reindex eh : nx_to_gml_sel asel_charge Lg Rg Kg reindex eh = nx_to_gml Lg Rg Kg reindex eh.
Proof.
  unfold nx_to_gml_sel, nx_to_gml. cbv zeta. destruct reindex; rewrite find_changed_sel_charge; reflexivity.
Qed.

(** ** GraphToMol options: the defaults graph_to_smi uses are [graph_to_mol]; ignore_bond_order only touches bond types;
    use_h_count=False only drops the explicit hydrogen counts *)
Lemma g2m_bond_gen_false ids e : g2m_bond_gen false ids e = g2m_bond ids e.
Proof. destruct e as [[u v] x]. unfold g2m_bond_gen, g2m_bond. destruct (e_ord x) as [[o|a b]|]; reflexivity. Qed.
Theorem graph_to_mol_gen_default (g : gr) : graph_to_mol_gen false true g = graph_to_mol g.
Proof.
  unfold graph_to_mol_gen, graph_to_mol. rewrite (map_ext _ _ (g2m_bond_gen_false (node_ids g))).
  destruct (forallb _ _); [|reflexivity]. f_equal.
Qed.
Theorem graph_to_mol_gen_atoms ignore (g : gr) atoms bonds :
  graph_to_mol_gen ignore true g = Some (atoms, bonds) -> atoms = map (fun p : N * natt => g2m_atom (snd p)) (gnodes g).
Proof. unfold graph_to_mol_gen. destruct (forallb _ _); [|discriminate]. intros [= <- _]. reflexivity. Qed.
