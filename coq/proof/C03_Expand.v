(** C03 — the explicit-hydrogen path starts from the hydrogen-EXPANDED substrate ([h_to_explicit], called by
    _get_explicit_map on the atoms of the kept match).  Proved: the expansion only re-writes implicit hydrogens as
    explicit H atoms — every element count (hydrogen = atoms + implicit counts) and the total charge are kept, bonds
    between substrate atoms are kept, substrate atoms keep everything but their hydrogen count; and one result of the
    reactor ([glued_result_sound]: glued on the substrate or on an expanded substrate, through _explicit_h or not), of
    which gluing + _explicit_h and the whole explicit path (expand, glue, _explicit_h) are instances. *)
From Coq Require Import List NArith ZArith Bool Lia.
From SK Require Import lib.Tok lib.LGraph model.C03_Model model.C03_Order proof.C03_Proof proof.C03_Glue proof.C03_ExplicitH.
Import ListNotations.
Local Open Scope Z_scope.

Definition H_attr : nattr := NA EL_H false 0 0 [].

(** accounting directly on a host graph *)
Definition h_count_el (e : N) (g : hostg) : Z := sumL (fun a => if N.eqb (a_el a) e then 1 else 0) (gnodes g).
Definition h_total_hc (g : hostg) : Z := sumL a_hc (gnodes g).
Definition h_total_ch (g : hostg) : Z := sumL a_ch (gnodes g).

Lemma elem_count_mol_of_host e g :
  elem_count e (mol_of_host g) = h_count_el e g + (if N.eqb e EL_H then h_total_hc g else 0).
Proof.
  unfold elem_count, count_el, total_hc, mol_of_host, h_count_el, h_total_hc; cbn [gnodes].
  rewrite (sumL_map (fun a => if N.eqb (m_el a) e then 1 else 0) dec_node), (sumL_map m_hc dec_node). reflexivity.
Qed.
Lemma total_charge_mol_of_host g : total_charge (mol_of_host g) = h_total_ch g.
Proof. unfold total_charge, mol_of_host, h_total_ch; cbn [gnodes]. apply (sumL_map m_ch dec_node). Qed.

(** * add_hs: k fresh hydrogen atoms bonded to [heavy] *)
Lemma add_hs_spec heavy k : forall (g : hostg) next g' next', add_hs g heavy next k = (g', next') ->
  NoDup (node_ids g) -> (forall n, In n (node_ids g) -> (n < next)%N) -> (heavy < next)%N ->
  NoDup (node_ids g') /\ (forall n, In n (node_ids g') -> (n < next')%N) /\ (next <= next')%N /\
  (forall w, sumL w (gnodes g') = sumL w (gnodes g) + Z.of_nat k * w H_attr) /\
  (forall n a, label g n = Some a -> label g' n = Some a) /\
  (forall a b, (a < next)%N -> (b < next)%N -> adj g' a b = adj g a b).
Proof.
  induction k as [|k IH]; intros g next g' next' H Hnd Hlt Hh.
  - simpl in H. inversion H; subst. repeat split; auto; try lia.
  - cbn [add_hs] in H.
    set (g1 := LG (gnodes g ++ [(next, NA EL_H false 0 0 [])]) (gedges g ++ [(heavy, next, 2)])) in H.
    assert (Hids : node_ids g1 = node_ids g ++ [next]) by (unfold node_ids, g1; simpl; rewrite map_app; reflexivity).
    destruct (IH g1 (N.succ next) g' next' H) as (A1 & A2 & A3 & A4 & A5 & A6).
    + rewrite Hids. apply nodup_snoc; [exact Hnd|]. intros I. specialize (Hlt _ I). lia.
    + intros n I. rewrite Hids in I. apply in_app_or in I. destruct I as [I|[<-|[]]]; [specialize (Hlt _ I)|]; lia.
    + lia.
    + split; [exact A1|]. split; [exact A2|]. split; [lia|]. split; [|split].
      * intros w. rewrite A4. unfold g1; cbn [gnodes]. rewrite sumL_app. cbn [sumL fold_right snd].
        rewrite Nat2Z.inj_succ, Z.mul_succ_l. fold H_attr. lia.
      * intros n a Hl. apply A5. unfold label, g1; simpl. apply assoc_app_some. exact Hl.
      * intros a b Ha Hb. rewrite A6 by lia. unfold adj, g1; simpl. rewrite find_edge_app.
        destruct (find_edge a b (gedges g)); [reflexivity|]. simpl.
        destruct (N.eqb_spec next a); [lia|]. destruct (N.eqb_spec next b); [lia|].
        rewrite !andb_false_r. reflexivity.
Qed.

(** * one step of the expansion and the whole fold *)
Definition expand_step (st : hostg * N) (heavy : N) : hostg * N :=
  let '(g', next) := st in
  match label g' heavy with
  | Some a => if 0 <? a_hc a
              then let '(g'', next') := add_hs g' heavy next (Z.to_nat (a_hc a)) in
                   (upd_node g'' heavy (fun a => set_hc a 0), next')
              else st
  | None => st
  end.

Lemma h_to_explicit_unfold g nodes :
  h_to_explicit g nodes = fst (fold_left expand_step (match nodes with [] => node_ids g | _ => nodes end) (g, N.succ (max_id g))).
Proof. reflexivity. Qed.

Record exp_inv (g0 : hostg) (next0 : N) (g : hostg) (next : N) : Prop := {
  ei_nodup : NoDup (node_ids g);
  ei_lt : forall n, In n (node_ids g) -> (n < next)%N;
  ei_next : (next0 <= next)%N;
  ei_el : forall e, h_count_el e g + (if N.eqb e EL_H then h_total_hc g else 0)
                    = h_count_el e g0 + (if N.eqb e EL_H then h_total_hc g0 else 0);
  ei_ch : h_total_ch g = h_total_ch g0;
  ei_adj : forall a b, (a < next0)%N -> (b < next0)%N -> adj g a b = adj g0 a b;
  ei_lab : forall n a, label g0 n = Some a -> exists a', label g n = Some a' /\ set_hc a' 0 = set_hc a 0 }.

Lemma label_lt {A B} (g : lgraph A B) n a next : (forall k, In k (node_ids g) -> (k < next)%N) -> label g n = Some a -> (n < next)%N.
Proof.
  intros H Hl. apply H. unfold label in Hl. apply assoc_in in Hl. unfold node_ids. change n with (fst (n, a)). apply in_map. exact Hl.
Qed.

Lemma expand_step_inv g0 next0 g next heavy g' next' :
  exp_inv g0 next0 g next -> expand_step (g, next) heavy = (g', next') -> exp_inv g0 next0 g' next'.
Proof.
  intros I H. unfold expand_step in H.
  destruct (label g heavy) as [a|] eqn:El; [|inversion H; subst; exact I].
  destruct (Z.ltb_spec 0 (a_hc a)) as [Hpos|]; [|inversion H; subst; exact I].
  destruct (add_hs g heavy next (Z.to_nat (a_hc a))) as [g1 next1] eqn:Ea. inversion H; subst g' next'. clear H.
  destruct I as [I1 I2 I3 I4 I5 I6 I7].
  pose proof (label_lt g heavy a next I2 El) as Hh.
  destruct (add_hs_spec heavy _ g next g1 next1 Ea I1 I2 Hh) as (A1 & A2 & A3 & A4 & A5 & A6).
  pose proof (A5 heavy a El) as El1.
  assert (SUM : forall w, sumL w (gnodes (upd_node g1 heavy (fun a => set_hc a 0)))
                          = sumL w (gnodes g) + a_hc a * w H_attr - w a + w (set_hc a 0)).
  { intros w. unfold upd_node; cbn [gnodes]. rewrite (sumL_upd w (gnodes g1) heavy (fun a => set_hc a 0) a A1 El1), A4, Z2Nat.id by lia. reflexivity. }
  constructor.
  - rewrite ids_upd. exact A1.
  - intros n. rewrite ids_upd. apply A2.
  - lia.
  - intros e. rewrite <- (I4 e). unfold h_count_el, h_total_hc. rewrite !SUM.
    cbn [set_hc H_attr a_el a_hc]. destruct (N.eqb_spec e EL_H) as [->|Hne].
    + rewrite N.eqb_refl. lia.
    + destruct (N.eqb_spec EL_H e); [congruence|]. lia.
  - rewrite <- I5. unfold h_total_ch. rewrite SUM. cbn [set_hc H_attr a_ch]. lia.
  - intros x y Hx Hy. unfold adj. rewrite edges_upd. fold (adj g1 x y). rewrite A6 by lia. apply I6; assumption.
  - intros n a0 Hl. destruct (I7 n a0 Hl) as (a1 & Hl1 & Hs). apply A5 in Hl1.
    rewrite label_upd, Hl1. destruct (N.eqb n heavy); simpl; eexists; (split; [reflexivity|]); [|exact Hs].
    rewrite <- Hs. reflexivity.
Qed.

Lemma expand_fold_inv g0 next0 nodes : forall g next g' next',
  exp_inv g0 next0 g next -> fold_left expand_step nodes (g, next) = (g', next') -> exp_inv g0 next0 g' next'.
Proof.
  induction nodes as [|h r IH]; intros g next g' next' I H; [inversion H; subst; exact I|].
  cbn [fold_left] in H. destruct (expand_step (g, next) h) as [g1 next1] eqn:E.
  eapply IH; [|exact H]. eapply expand_step_inv; eauto.
Qed.

Theorem h_to_explicit_accounting (g : hostg) (nodes : list N) : NoDup (node_ids g) ->
  (forall e, elem_count e (mol_of_host (h_to_explicit g nodes)) = elem_count e (mol_of_host g)) /\
  total_charge (mol_of_host (h_to_explicit g nodes)) = total_charge (mol_of_host g) /\
  (forall a b, In a (node_ids g) -> In b (node_ids g) -> adj (h_to_explicit g nodes) a b = adj g a b) /\
  (forall n a, label g n = Some a -> exists a', label (h_to_explicit g nodes) n = Some a' /\ set_hc a' 0 = set_hc a 0) /\
  NoDup (node_ids (h_to_explicit g nodes)).
Proof.
  intros Hnd. rewrite h_to_explicit_unfold.
  destruct (fold_left expand_step _ (g, N.succ (max_id g))) as [g' next'] eqn:E. cbn [fst].
  assert (I0 : exp_inv g (N.succ (max_id g)) g (N.succ (max_id g))).
  { constructor; auto; try lia.
    - intros n I. unfold max_id. pose proof (proj2 (fold_max_ge (node_ids g) 0%N) n I). unfold max_id. lia.
    - intros n a Hl. eauto. }
  destruct (expand_fold_inv g _ _ g _ g' next' I0 E) as [I1 I2 I3 I4 I5 I6 I7].
  split; [|split; [|split; [|split]]].
  - intros e. rewrite !elem_count_mol_of_host. apply I4.
  - rewrite !total_charge_mol_of_host. exact I5.
  - intros a b Ia Ib. apply I6.
    + pose proof (proj2 (fold_max_ge (node_ids g) 0%N) a Ia). unfold max_id. lia.
    + pose proof (proj2 (fold_max_ge (node_ids g) 0%N) b Ib). unfold max_id. lia.
  - exact I7.
  - exact I1.
Qed.

(** the graph a call is glued on: the substrate itself, or the substrate with some hydrogens written out *)
Lemma base_facts host hb : wf_hostb host = true -> (hb = host \/ exists nodes : list N, hb = h_to_explicit host nodes) ->
  (forall e, elem_count e (mol_of_host hb) = elem_count e (mol_of_host host)) /\
  total_charge (mol_of_host hb) = total_charge (mol_of_host host) /\
  (forall a b, In a (node_ids host) -> In b (node_ids host) -> adj hb a b = adj host a b) /\
  (forall a, In a (node_ids host) -> In a (node_ids hb)) /\
  (forall n a, label host n = Some a -> exists a', label hb n = Some a' /\ set_hc a' 0 = set_hc a 0).
Proof.
  intros Hwh [->|(nodes & ->)]; [repeat split; auto; intros n a Hl; exists a; auto|].
  destruct (h_to_explicit_accounting host nodes (wf_host_nodup host Hwh)) as (X1 & X2 & X3 & X4 & _).
  split; [exact X1|]. split; [exact X2|]. split; [exact X3|]. split; [|exact X4].
  intros a Ia. unfold node_ids in Ia. apply in_map_iff in Ia. destruct Ia as ([k v] & <- & Ia).
  destruct (X4 k v (assoc_nodup_in k (gnodes host) v (wf_host_nodup host Hwh) Ia)) as (a' & Hl & _).
  unfold label in Hl. apply assoc_in in Hl. exact (in_map fst _ (k, a') Hl).
Qed.

Section AnyOrder.
  Variable ord : list N -> list N.
  Hypothesis ord_in : forall l x, In x (ord l) <-> In x l.

  (** one result of the reactor: glued on [hb], then through _explicit_h or not *)
  Theorem glued_result_sound host hb rc m T g :
    wf_hostb host = true -> (hb = host \/ exists nodes : list N, hb = h_to_explicit host nodes) -> wf_hostb hb = true ->
    wf_rcb rc = true -> match_rcb hb rc m = true -> glue hb rc m = Some T ->
    (g = T \/ exists ms, explicit_h_ord ord T = Some (g, ms)) ->
    (forall e, elem_count e (fst (its_decompose g)) = elem_count e (mol_of_host host)) /\
    total_charge (fst (its_decompose g)) = total_charge (mol_of_host host) /\
    (forall a b, In a (node_ids host) -> In b (node_ids host) -> bondG g a b = adj host a b) /\
    (balancedb rc = true ->
       (forall e, elem_count e (fst (its_decompose g)) = elem_count e (snd (its_decompose g))) /\
       total_charge (fst (its_decompose g)) = total_charge (snd (its_decompose g))).
  Proof.
    intros Hwh Hb Hwx Hwr Hm Hg Hres. destruct (base_facts host hb Hwh Hb) as (F1 & F2 & F3 & F4 & _).
    pose proof (glued_nodup hb rc m T Hwx Hwr Hm Hg) as Hnd.
    destruct (left_is_host hb rc m T Hwx Hwr Hm Hg) as (L1 & _ & L3).
    destruct (left_is_host_dec hb rc m T Hwx Hwr Hm Hg) as (D1 & _).
    assert (TA : forall e, elem_count e (fst (its_decompose T)) = elem_count e (mol_of_host host)).
    { intros e. rewrite <- F1. unfold elem_count, count_el, total_hc. rewrite D1. reflexivity. }
    assert (TQ : total_charge (fst (its_decompose T)) = total_charge (mol_of_host host)).
    { rewrite <- F2. unfold total_charge. rewrite D1. reflexivity. }
    assert (TB : forall a b, In a (node_ids host) -> In b (node_ids host) -> bondG T a b = adj host a b).
    { intros a b Ia Ib. rewrite L3. apply F3; assumption. }
    destruct Hres as [->|(ms & He)].
    - split; [exact TA|]. split; [exact TQ|]. split; [exact TB|].
      intros Hbal. exact (conserve_balanced hb rc m T Hwx Hwr Hm Hg Hbal).
    - destruct (explicit_h_ord_accounting ord ord_in T g ms Hnd He) as (_ & B1 & (B2 & B3) & B4 & _).
      split; [|split; [|split]].
      + intros e. rewrite (proj1 (B1 e)). apply TA.
      + rewrite B2. exact TQ.
      + intros a b Ia Ib. unfold bondG. rewrite B4 by (rewrite L1; apply F4; assumption). fold (bondG T a b). apply TB; assumption.
      + intros Hbal. destruct (conserve_balanced hb rc m T Hwx Hwr Hm Hg Hbal) as (C1 & C2). split.
        * intros e. destruct (B1 e) as [E1 E2]. rewrite E1, E2. apply C1.
        * rewrite B2, B3. exact C2.
  Qed.

  (** * gluing + _explicit_h: a balanced rule still yields a balanced reaction, with the substrate's bonds *)
  Theorem explicit_h_ord_conserve host rc m T T' ms :
    wf_hostb host = true -> wf_rcb rc = true -> match_rcb host rc m = true -> glue host rc m = Some T ->
    balancedb rc = true -> explicit_h_ord ord T = Some (T', ms) ->
    (forall e, elem_count e (fst (its_decompose T')) = elem_count e (snd (its_decompose T'))) /\
    total_charge (fst (its_decompose T')) = total_charge (snd (its_decompose T')) /\
    (forall e, elem_count e (fst (its_decompose T')) = elem_count e (mol_of_host host)) /\
    (forall a b, In a (node_ids host) -> In b (node_ids host) -> bondG T' a b = adj host a b).
  Proof.
    intros Hwh Hwr Hm Hg Hb He.
    destruct (glued_result_sound host host rc m T T' Hwh (or_introl eq_refl) Hwh Hwr Hm Hg (or_intror (ex_intro _ ms He))) as (A & _ & C & D).
    destruct (D Hb) as [D1 D2]. auto.
  Qed.

  (** * the explicit path composed: expand the substrate, glue the rule along a re-match, run _explicit_h *)
  Theorem explicit_path_ord host nodes rc m T T' ms :
    wf_hostb host = true -> wf_hostb (h_to_explicit host nodes) = true -> wf_rcb rc = true ->
    match_rcb (h_to_explicit host nodes) rc m = true -> glue (h_to_explicit host nodes) rc m = Some T ->
    explicit_h_ord ord T = Some (T', ms) ->
    (forall e, elem_count e (fst (its_decompose T')) = elem_count e (mol_of_host host)) /\
    total_charge (fst (its_decompose T')) = total_charge (mol_of_host host) /\
    (forall a b, In a (node_ids host) -> In b (node_ids host) -> bondG T' a b = adj host a b) /\
    (balancedb rc = true ->
       (forall e, elem_count e (fst (its_decompose T')) = elem_count e (snd (its_decompose T'))) /\
       total_charge (fst (its_decompose T')) = total_charge (snd (its_decompose T'))).
  Proof.
    intros Hwh Hwx Hwr Hm Hg He.
    exact (glued_result_sound host _ rc m T T' Hwh (or_intror (ex_intro _ nodes eq_refl)) Hwx Hwr Hm Hg (or_intror (ex_intro _ ms He))).
  Qed.
End AnyOrder.

Theorem explicit_h_conserve host rc m T T' ms :
  wf_hostb host = true -> wf_rcb rc = true -> match_rcb host rc m = true -> glue host rc m = Some T ->
  balancedb rc = true -> explicit_h T = Some (T', ms) ->
  (forall e, elem_count e (fst (its_decompose T')) = elem_count e (snd (its_decompose T'))) /\
  total_charge (fst (its_decompose T')) = total_charge (snd (its_decompose T')) /\
  (forall e, elem_count e (fst (its_decompose T')) = elem_count e (mol_of_host host)) /\
  (forall a b, In a (node_ids host) -> In b (node_ids host) -> bondG T' a b = adj host a b).
Proof. rewrite <- explicit_h_ord_sort. apply explicit_h_ord_conserve. exact (fun l x => in_sort_N_iff x l). Qed.


Theorem explicit_path host nodes rc m T T' ms :
  wf_hostb host = true -> wf_hostb (h_to_explicit host nodes) = true -> wf_rcb rc = true ->
  match_rcb (h_to_explicit host nodes) rc m = true -> glue (h_to_explicit host nodes) rc m = Some T ->
  explicit_h T = Some (T', ms) ->
  (forall e, elem_count e (fst (its_decompose T')) = elem_count e (mol_of_host host)) /\
  total_charge (fst (its_decompose T')) = total_charge (mol_of_host host) /\
  (forall a b, In a (node_ids host) -> In b (node_ids host) -> bondG T' a b = adj host a b) /\
  (balancedb rc = true ->
     (forall e, elem_count e (fst (its_decompose T')) = elem_count e (snd (its_decompose T'))) /\
     total_charge (fst (its_decompose T')) = total_charge (snd (its_decompose T'))).
Proof. rewrite <- explicit_h_ord_sort. apply explicit_path_ord. exact (fun l x => in_sort_N_iff x l). Qed.
