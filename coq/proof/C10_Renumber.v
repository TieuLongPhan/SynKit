(** C10 — proofs: renumbering a reaction renumbers its rule.  If (r', p') are (r, p) with every atom id n replaced by s n
    (s injective on the atoms; attribute dictionaries equal except atom_map), then the rule smart_to_gml writes for (r', p') reads
    back as the rule of (r, p) renumbered by s — same elements, charges, (before, after) bonds at the renamed atoms, nothing else. *)
From Coq Require Import List NArith ZArith Bool Lia.
From SK Require Import lib.LGraph lib.StrJoin model.C10_Model model.C10_Rxn proof.C10_Proof proof.C10_Views proof.C10_Build
  proof.C10_Copy proof.C10_GmlRead proof.C10_GmlWrite proof.C10_Centre proof.C10_Routes proof.C10_Routes2 proof.C10_Smart
  proof.C10_HRound proof.C10_Rxn.
Import ListNotations.
Local Open Scope Z_scope.

Definition same_but_am (a' a : natt) : Prop :=
  a_el a' = a_el a /\ a_ar a' = a_ar a /\ a_hc a' = a_hc a /\ a_ch a' = a_ch a /\ a_tgh a' = a_tgh a.

Record renamed (s : N -> N) (G G' : gr) : Prop := {
  rn_inj : forall a b, has_node G a = true -> has_node G b = true -> s a = s b -> a = b;
  rn_nodes : forall k, has_node G' k = true <-> exists n, has_node G n = true /\ k = s n;
  rn_label : forall n a, label G n = Some a -> exists a', label G' (s n) = Some a' /\ same_but_am a' a;
  rn_adj : forall u v, has_node G u = true -> has_node G v = true -> adj G' (s u) (s v) = adj G u v }.

Lemma tg_of_rn s G G' n : renamed s G G' -> has_node G n = true -> tg_of G' (s n) = tg_of G n.
Proof.
  intros R Hn. apply has_node_label in Hn. destruct Hn as [a La]. destruct (rn_label _ _ _ R n a La) as (a' & La' & E1 & E2 & E3 & E4 & _).
  unfold tg_of. rewrite La, La', E1, E2, E3, E4. reflexivity.
Qed.
Lemma scal_rn s G G' u v : renamed s G G' -> has_node G u = true -> has_node G v = true -> scal_order G' (s u) (s v) = scal_order G u v.
Proof. intros R Hu Hv. unfold scal_order. rewrite (rn_adj _ _ _ R u v Hu Hv). reflexivity. Qed.

Section Renumber.
Variable s : N -> N.
Variables r p r' p' : gr.
Variables eo eo' : list (N * N).
Hypothesis Hr : mol_ok r = true.
Hypothesis Hp : mol_ok p = true.
Hypothesis Hb : balanced r p = true.
Hypothesis He : forall u v, pair_in u v eo = has_edge r u v || has_edge p u v.
Hypothesis Hr' : mol_ok r' = true.
Hypothesis Hp' : mol_ok p' = true.
Hypothesis Hb' : balanced r' p' = true.
Hypothesis He' : forall u v, pair_in u v eo' = has_edge r' u v || has_edge p' u v.
Hypothesis Rr : renamed s r r'.
Hypothesis Rp : renamed s p p'.
Let I := its_construct r p eo.
Let I' := its_construct r' p' eo'.
Let HI : is_ok I := I_is_ok r p Hr Hp Hb eo He.
Let HI' : is_ok I' := I_is_ok r' p' Hr' Hp' Hb' eo' He'.

Lemma rp_nodes n : has_node p n = has_node r n.
Proof.
  apply eq_true_iff_eq. split; [apply (bal_HG r p Hb)|]. intros H. apply has_node_label in H. destruct H as [a La].
  destruct (bal_GH r p Hb n a La) as (b & Lb & _). apply has_node_label. eauto.
Qed.

Let I_has : forall n, has_node I n = has_node r n := C10_Smart.I_has r p Hr Hp Hb eo He.
Let I'_has : forall k, has_node I' k = has_node r' k := C10_Smart.I_has r' p' Hr' Hp' Hb' eo' He'.

Lemma I_adj_rn u v : has_node r u = true -> has_node r v = true -> adj I' (s u) (s v) = adj I u v.
Proof.
  intros Hu Hv. unfold I, I'. rewrite (I_adj r p eo He u v), (I_adj r' p' eo' He' (s u) (s v)).
  pose proof Hu as Hu2. pose proof Hv as Hv2. rewrite <- rp_nodes in Hu2, Hv2.
  unfold has_edge. rewrite (rn_adj _ _ _ Rr u v Hu Hv), (rn_adj _ _ _ Rp u v Hu2 Hv2).
  unfold its_d. rewrite (scal_rn s r r' u v Rr Hu Hv), (scal_rn s p p' u v Rp Hu2 Hv2). reflexivity.
Qed.

Lemma I_label_rn n a : label I n = Some a -> exists a', label I' (s n) = Some a' /\ same_but_am a' a.
Proof.
  intros L. assert (has_node r n = true) as Hn by (rewrite <- I_has; apply has_node_label; eauto).
  pose proof Hn as Hn2. rewrite <- rp_nodes in Hn2.
  unfold I in L. rewrite (I_label r p Hr Hp Hb eo He n) in L. destruct (label r n) as [a0|] eqn:La; [|discriminate].
  destruct (assoc n (its_nodes r p)) as [b|]; [|discriminate]. simpl in L. injection L as <-.
  destruct (rn_label _ _ _ Rr n a0 La) as (a0' & La' & _).
  unfold I'. rewrite (I_label r' p' Hr' Hp' Hb' eo' He' (s n)), La', (its_nodes_label r' p' Hb' (s n)), La'. simpl.
  eexists. split; [reflexivity|]. unfold its_node. rewrite (tg_of_rn s r r' n Rr Hn), (tg_of_rn s p p' n Rp Hn2).
  destruct (tg_of r n) as [[[e ar] h] c]. repeat split.
Qed.

Lemma is_H_rn n : has_node r n = true -> is_H I' (s n) = is_H I n.
Proof.
  intros Hn. rewrite <- I_has in Hn. apply has_node_label in Hn. destruct Hn as [a La].
  destruct (I_label_rn n a La) as (a' & La' & E1 & _). unfold is_H. rewrite La, La'. unfold el_is_H. rewrite E1. reflexivity.
Qed.
Lemma sel_rn u v x : has_node r u = true -> has_node r v = true -> sel I' (s u) (s v) x = sel I u v x.
Proof. intros Hu Hv. unfold sel. rewrite (is_H_rn u Hu), (is_H_rn v Hv). reflexivity. Qed.

Lemma I'_adj_nodes k l x : adj I' k l = Some x -> exists u v, has_node r u = true /\ has_node r v = true /\ k = s u /\ l = s v.
Proof.
  intros A. destruct (adj_ends I' k l x (proj1 HI') A) as [Ha Hb0].
  rewrite I'_has in Ha, Hb0. apply (rn_nodes _ _ _ Rr) in Ha. apply (rn_nodes _ _ _ Rr) in Hb0.
  destruct Ha as (u & Hu & ->). destruct Hb0 as (v & Hv & ->). exists u, v. auto.
Qed.
Lemma I_adj_nodes u v x : adj I u v = Some x -> has_node r u = true /\ has_node r v = true.
Proof.
  intros A. destruct (adj_ends I u v x (proj1 HI) A) as [Ha Hb0]. rewrite I_has in Ha, Hb0. auto.
Qed.

Lemma touched_rn m : has_node r m = true -> touched I' (s m) = touched I m.
Proof.
  intros Hm. apply eq_true_iff_eq. rewrite (touched_spec I' (s m) (proj1 HI')), (touched_spec I m (proj1 HI)). split.
  - intros (w' & x & A & S). destruct (I'_adj_nodes _ _ _ A) as (u & v & Hu & Hv & E1 & ->).
    apply (rn_inj _ _ _ Rr m u Hm Hu) in E1. subst u. rewrite (I_adj_rn m v Hm Hv) in A. rewrite (sel_rn m v x Hm Hv) in S. eauto.
  - intros (w & x & A & S). destruct (I_adj_nodes _ _ _ A) as [_ Hw]. exists (s w), x.
    rewrite (I_adj_rn m w Hm Hw), (sel_rn m w x Hm Hw). auto.
Qed.
Lemma touched_node m : touched I m = true -> has_node r m = true.
Proof. rewrite (touched_spec I m (proj1 HI)). intros (w & x & A & _). apply (I_adj_nodes _ _ _ A). Qed.
Lemma touched'_node k : touched I' k = true -> exists n, has_node r n = true /\ k = s n.
Proof.
  rewrite (touched_spec I' k (proj1 HI')). intros (w & x & A & _). destruct (I'_adj_nodes _ _ _ A) as (u & v & Hu & _ & -> & _). eauto.
Qed.

Let c := get_rc I.
Let c' := get_rc I'.

Lemma c_nodes_rn k : has_node c' k = true <-> exists n, has_node c n = true /\ k = s n.
Proof.
  unfold has_node, c, c'. rewrite (get_rc_label I' k HI'). split.
  - destruct (touched I' k) eqn:T; [|discriminate]. intros _. destruct (touched'_node k T) as (n & Hn & ->).
    exists n. split; [|reflexivity]. rewrite (get_rc_label I n HI). rewrite (touched_rn n Hn) in T. rewrite T. reflexivity.
  - intros (n & H & ->). rewrite (get_rc_label I n HI) in H. destruct (touched I n) eqn:T; [|discriminate].
    rewrite (touched_rn n (touched_node n T)), T. reflexivity.
Qed.
Lemma c_label_rn n a : label c n = Some a ->
  exists a', label c' (s n) = Some a' /\ tG_of a' = tG_of a /\ tH_of a' = tH_of a.
Proof.
  unfold c, c'. rewrite (get_rc_label I n HI). destruct (touched I n) eqn:T; [|discriminate]. intros [= <-].
  pose proof (touched_node n T) as Hn. rewrite (get_rc_label I' (s n) HI'), (touched_rn n Hn), T.
  assert (exists a0, label I n = Some a0) as [a0 La] by (apply has_node_label; rewrite I_has; exact Hn).
  destruct (I_label_rn n a0 La) as (a0' & La' & _ & _ & _ & _ & Et). unfold rca. rewrite La, La'.
  eexists. split; [reflexivity|]. unfold tG_of, tH_of, rc_attr. simpl. rewrite Et. auto.
Qed.
Lemma c_adj_rn u v : has_node r u = true -> has_node r v = true -> adj c' (s u) (s v) = adj c u v.
Proof.
  intros Hu Hv. unfold c, c'. rewrite (get_rc_adj I' (s u) (s v) HI'), (get_rc_adj I u v HI), (I_adj_rn u v Hu Hv).
  destruct (adj I u v) as [x|]; [|reflexivity]. rewrite (sel_rn u v x Hu Hv). reflexivity.
Qed.
Lemma c_node_r n : has_node c n = true -> has_node r n = true.
Proof.
  unfold has_node, c. rewrite (get_rc_label I n HI). destruct (touched I n) eqn:T; [|discriminate]. intros _. apply (touched_node n T).
Qed.

Theorem rule_renumbering_sec (eh : bool) :
  let A := gml_to_its (smart_to_gml r p eo true false eh) in
  let A' := gml_to_its (smart_to_gml r' p' eo' true false eh) in
  (forall k, has_node A' k = true <-> exists n, has_node A n = true /\ k = s n) /\
  (forall n e q q', label A n = Some (gml_node n e q q') -> label A' (s n) = Some (gml_node (s n) e q q')) /\
  (forall u v, has_node A u = true -> has_node A v = true -> adj A' (s u) (s v) = adj A u v).
Proof.
  intros A A'.
  destruct (three_routes_sec r p eo Hr Hp Hb He eh) as ((A1 & A2 & A3) & _). fold I in A1, A2, A3. fold c in A1, A2, A3. fold A in A1, A2, A3.
  destruct (three_routes_sec r' p' eo' Hr' Hp' Hb' He' eh) as ((B1 & B2 & B3) & _). fold I' in B1, B2, B3. fold c' in B1, B2, B3. fold A' in B1, B2, B3.
  split; [|split].
  - intros k. rewrite B1, c_nodes_rn. split.
    + intros (n & Hn & ->). exists n. split; [rewrite A1; exact Hn|reflexivity].
    + intros (n & Hn & ->). exists n. split; [rewrite <- A1; exact Hn|reflexivity].
  - intros n e q q' L. assert (has_node c n = true) as Hn by (rewrite <- A1; apply has_node_label; eauto).
    apply has_node_label in Hn. destruct Hn as [a La]. rewrite (A2 n a La) in L.
    destruct (c_label_rn n a La) as (a' & La' & E1 & E2). rewrite (B2 (s n) a' La'), E1, E2.
    assert (tg_el (tG_of a) = e /\ tg_ch (tG_of a) = q /\ tg_ch (tH_of a) = q') as (-> & -> & ->) by (unfold gml_node in L; inversion L; auto).
    reflexivity.
  - intros u v Hu Hv. rewrite A1 in Hu, Hv. rewrite B3, A3. apply c_adj_rn; apply c_node_r; assumption.
Qed.
End Renumber.

Theorem rule_renumbering (s : N -> N) (r p r' p' : gr) (eo eo' : list (N * N)) (eh : bool) :
  mol_ok r = true -> mol_ok p = true -> balanced r p = true -> eo_covers r p eo = true ->
  mol_ok r' = true -> mol_ok p' = true -> balanced r' p' = true -> eo_covers r' p' eo' = true ->
  renamed s r r' -> renamed s p p' ->
  let A := gml_to_its (smart_to_gml r p eo true false eh) in
  let A' := gml_to_its (smart_to_gml r' p' eo' true false eh) in
  (forall k, has_node A' k = true <-> exists n, has_node A n = true /\ k = s n) /\
  (forall n e q q', label A n = Some (gml_node n e q q') -> label A' (s n) = Some (gml_node (s n) e q q')) /\
  (forall u v, has_node A u = true -> has_node A v = true -> adj A' (s u) (s v) = adj A u v).
Proof.
  intros Hr Hp Hb He Hr' Hp' Hb' He' Rr Rp.
  apply (rule_renumbering_sec s r p r' p' eo eo' Hr Hp Hb (eo_covers_spec r p eo He) Hr' Hp' Hb' (eo_covers_spec r' p' eo' He') Rr Rp).
Qed.

(** ** the literal renumbering of a graph by a globally injective map is a [renamed] pair (atom_map set to the new id, as
    use_index_as_atom_map=True does) *)
Definition rename_graph (s : N -> N) (g : gr) : gr :=
  LG (map (fun q : N * natt => (s (fst q), set_am (Z.of_N (s (fst q))) (snd q))) (gnodes g))
     (map (fun e : N * N * eatt => let '(u, v, x) := e in (s u, s v, x)) (gedges g)).

Section RenameGraph.
Variable s : N -> N.
Hypothesis s_inj : forall a b, s a = s b -> a = b.

Lemma assoc_rename (l : list (N * natt)) n :
  assoc (s n) (map (fun q : N * natt => (s (fst q), set_am (Z.of_N (s (fst q))) (snd q))) l) =
  option_map (set_am (Z.of_N (s n))) (assoc n l).
Proof.
  induction l as [|[k a] t IH]; [reflexivity|]. simpl. destruct (N.eqb_spec n k) as [->|Hne].
  - rewrite N.eqb_refl. reflexivity.
  - destruct (N.eqb_spec (s n) (s k)) as [E|_]; [apply s_inj in E; contradiction|]. exact IH.
Qed.
Lemma pair_eqb_rename a b u v : pair_eqb (s a) (s b) (s u) (s v) = pair_eqb a b u v.
Proof.
  apply eq_true_iff_eq. rewrite !pair_eqb_spec. split.
  - intros [[E1 E2]|[E1 E2]]; apply s_inj in E1; apply s_inj in E2; auto.
  - intros [[-> ->]|[-> ->]]; auto.
Qed.
Lemma find_edge_rename (es : list (N * N * eatt)) u v :
  find_edge (s u) (s v) (map (fun e : N * N * eatt => let '(a, b, x) := e in (s a, s b, x)) es) = find_edge u v es.
Proof.
  induction es as [|[[a b] x] t IH]; [reflexivity|]. simpl map. rewrite !find_edge_cons, pair_eqb_rename, IH. reflexivity.
Qed.

Theorem rename_graph_renamed (g : gr) : renamed s g (rename_graph s g).
Proof.
  split.
  - intros a b _ _. apply s_inj.
  - intros k. split.
    + intros H. apply has_node_in in H. unfold rename_graph, node_ids in H. simpl in H. rewrite map_map in H. simpl in H.
      apply in_map_iff in H. destruct H as ([n a] & <- & Hin). exists n. split; [|reflexivity].
      apply has_node_in. unfold node_ids. apply in_map_iff. exists (n, a). auto.
    + intros (n & Hn & ->). apply has_node_label in Hn. destruct Hn as [a La]. apply has_node_label.
      unfold label, rename_graph. simpl. rewrite assoc_rename. unfold label in La. rewrite La. simpl. eauto.
  - intros n a La. unfold label, rename_graph. simpl. rewrite assoc_rename. unfold label in La. rewrite La. simpl.
    eexists. split; [reflexivity|]. repeat split.
  - intros u v _ _. unfold adj, rename_graph. simpl. apply find_edge_rename.
Qed.
End RenameGraph.

(** non-vacuity: the reaction of proof/C10_Smart.v with every atom id n renumbered to n + 10 *)
Definition s10 (n : N) : N := (n + 10)%N.
Example rule_renumbering_ex :
  mol_ok (rename_graph s10 ex_r) = true /\ mol_ok (rename_graph s10 ex_p) = true /\
  balanced (rename_graph s10 ex_r) (rename_graph s10 ex_p) = true /\
  eo_covers (rename_graph s10 ex_r) (rename_graph s10 ex_p) (union_pairs (rename_graph s10 ex_r) (rename_graph s10 ex_p)) = true /\
  renamed s10 ex_r (rename_graph s10 ex_r) /\ renamed s10 ex_p (rename_graph s10 ex_p) /\
  map fst (gnodes (gml_to_its (smart_to_gml ex_r ex_p (union_pairs ex_r ex_p) true false false))) = [1; 2; 3]%N /\
  map fst (gnodes (gml_to_its (smart_to_gml (rename_graph s10 ex_r) (rename_graph s10 ex_p)
                                 (union_pairs (rename_graph s10 ex_r) (rename_graph s10 ex_p)) true false false))) = [11; 12; 13]%N.
Proof.
  assert (forall a b, s10 a = s10 b -> a = b) as Hinj by (unfold s10; intros; lia).
  repeat split; try (vm_compute; reflexivity); try (apply (rename_graph_renamed s10 Hinj)).
Qed.
