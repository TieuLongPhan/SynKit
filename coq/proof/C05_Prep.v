(** C05 — rule preparation in the implicit-hydrogen mode (SynRule(..., implicit_h=False): its_decompose and the
    typesGH refresh; _invert_template for the backward direction) commutes with renumbering of the template; composed
    with the result-list theorem of proof/C05_Comp.v into the end-to-end statement about [pipeline]. Stdlib lists. *)
From Coq Require Import List ZArith.
From SK Require Import lib.LGraph.
From SK Require Import model.C03_Model model.C05_Model proof.C05_Proof proof.C05_Pipe proof.C05_Comp.
Import ListNotations.
Local Open Scope Z_scope.

Section WithThr.
Context {TH : Thr}.


Section PrepEquiv.
  Variable sg : N -> N.
  Hypothesis Hs : inj sg.

  Lemma invert_template_relabel (T : its) : invert_template (relabel sg T) = relabel sg (invert_template T).
  Proof.
    unfold invert_template, relabel; simpl. rewrite !map_map. f_equal.
    rewrite flat_map_map', map_flat_map'. apply flat_map_ext. intros [[u v] x]. simpl.
    destruct ((0 <? eH x) || (0 <? eG x))%bool; reflexivity.
  Qed.

  Lemma dec_side_relabel sn se (T : its) : dec_side sn se (relabel sg T) = relabel sg (dec_side sn se T).
  Proof.
    unfold dec_side, relabel; simpl. rewrite !map_map. f_equal.
    rewrite flat_map_map', map_flat_map'. apply flat_map_ext. intros [[u v] x]. simpl.
    destruct (0 <? se x); reflexivity.
  Qed.

  Definition refresh_step (l r : molg) (p : N * inode) (acc : option (list (N * inode))) : option (list (N * inode)) :=
    match acc, label l (fst p), label r (fst p) with
    | Some ns, Some la, Some ra =>
        let a := snd p in
        Some ((fst p, IN (set_hc (iG a) (m_hc la)) (set_hc (iH a) (m_hc ra)) (i_hc a) (i_hp a)) :: ns)
    | _, _, _ => None
    end.

  Lemma refresh_types_unfold rc l r :
    refresh_types rc l r = match fold_right (refresh_step l r) (Some []) (gnodes rc) with
                           | Some ns => Some (LG ns (gedges rc)) | None => None end.
  Proof. reflexivity. Qed.

  Lemma refresh_fold_relabel (l r : molg) ns :
    fold_right (refresh_step (relabel sg l) (relabel sg r)) (Some []) (map (fun p : N * inode => (sg (fst p), snd p)) ns)
    = option_map (map (fun p : N * inode => (sg (fst p), snd p))) (fold_right (refresh_step l r) (Some []) ns).
  Proof.
    induction ns as [|[k a] ns IH]; simpl; [reflexivity|].
    rewrite IH. unfold refresh_step at 1 3. simpl.
    rewrite !(label_relabel _ _ sg Hs).
    destruct (fold_right (refresh_step l r) (Some []) ns); simpl; [|reflexivity].
    destruct (label l k); [|reflexivity]. destruct (label r k); reflexivity.
  Qed.

  Lemma refresh_types_relabel (rc : its) (l r : molg) :
    refresh_types (relabel sg rc) (relabel sg l) (relabel sg r) = option_map (relabel sg) (refresh_types rc l r).
  Proof.
    rewrite !refresh_types_unfold. simpl (gnodes (relabel sg rc)). rewrite refresh_fold_relabel.
    destruct (fold_right (refresh_step l r) (Some []) (gnodes rc)); reflexivity.
  Qed.

  Lemma is_H_m_relabel (g : molg) u : is_H_m (relabel sg g) (sg u) = is_H_m g u.
  Proof. unfold is_H_m. rewrite (label_relabel _ _ sg Hs). reflexivity. Qed.

  Lemma has_XH_relabel (g : molg) : has_XH (relabel sg g) = has_XH g.
  Proof.
    unfold has_XH. simpl (gedges (relabel sg g)). generalize (gedges g) as es.
    induction es as [|[[u v] x] es IH]; simpl; [reflexivity|]. rewrite !is_H_m_relabel, IH. reflexivity.
  Qed.

  Lemma synrule_false_relabel (T : its) :
    synrule (relabel sg T) false
    = option_map (fun t : triple => (relabel sg (fst (fst t)), relabel sg (snd (fst t)), relabel sg (snd t))) (synrule T false).
  Proof.
    unfold synrule, its_decompose. simpl. rewrite !dec_side_relabel, refresh_types_relabel.
    destruct (refresh_types T (dec_side iG eG T) (dec_side iH eH T)); reflexivity.
  Qed.

  Lemma prepare_relabel inv (T : its) p :
    prepare inv true T = Some p -> p_flag p = false -> prepare inv true (relabel sg T) = Some (relabel_prep sg p).
  Proof.
    unfold prepare. change (negb true) with false.
    destruct inv.
    - rewrite invert_template_relabel, synrule_false_relabel.
      destruct (synrule (invert_template T) false) as [[[rc l] r]|]; simpl; [|discriminate].
      intros [= <-]. simpl. intros Hflag. unfold relabel_prep; simpl. rewrite has_XH_relabel. destruct (has_XH l); [discriminate Hflag | reflexivity].
    - rewrite synrule_false_relabel.
      destruct (synrule T false) as [[[rc l] r]|]; simpl; [|discriminate].
      intros [= <-]. simpl. intros Hflag. unfold relabel_prep; simpl. rewrite has_XH_relabel. destruct (has_XH l); [discriminate Hflag | reflexivity].
  Qed.
End PrepEquiv.

(** end to end, implicit-hydrogen mode, no _explicit_h stage, pattern without explicit X-H bonds: the result list of the
    renumbered (substrate, template) is the renumbered result list, for every strategy *)
Lemma pipeline_relabel_any strat sg pi (Hs : inj sg) (Hp : inj pi) inv (host : hostg) (T : its) p :
  prepare inv true T = Some p -> p_flag p = false ->
  pipeline inv true false strat (relabel pi host) (relabel sg T) = option_map (map (relabel pi)) (pipeline inv true false strat host T).
Proof.
  intros Hprep Hflag. unfold pipeline. rewrite (prepare_relabel sg Hs inv T p Hprep Hflag), Hprep.
  apply results_relabel; assumption.
Qed.

Lemma pipeline_relabel sg pi (Hs : inj sg) (Hp : inj pi) inv (host : hostg) (T : its) p :
  prepare inv true T = Some p -> p_flag p = false ->
  pipeline inv true false 0%N (relabel pi host) (relabel sg T) = option_map (map (relabel pi)) (pipeline inv true false 0%N host T).
Proof. apply pipeline_relabel_any; assumption. Qed.

End WithThr.
