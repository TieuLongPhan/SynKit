(** C01 — GraphToMol after MolToGraph, without RDKit in between: the RWMol content built from the graph of a molecule is that
    molecule's mapped part.  This reduces the RDKit contract R1 to a statement about RDKit alone ("constructing, sanitising,
    writing and re-reading a molecule from its own atoms and bonds gives it back"). *)
From Coq Require Import List NArith ZArith Bool Arith.
From SK Require Import lib.LGraph lib.C01_GraphLemmas model.C01_Model model.C02_Model model.C01_String
  proof.C01_Proof proof.C01_StringProof proof.C01_StringPipe.
Import ListNotations.
Local Open Scope Z_scope.

Definition watom_of_ratom (a : ratom) : watom := WA (ra_el a) (ra_ch a) (Z.of_N (ra_map a)) (ra_hs a).

Lemma watoms_mapped (l : list ratom) :
  map (fun p : N * gnode => watom_of (snd p)) (flat_map (fun a => if is_mapped a then [(ra_map a, atom_node a)] else []) l) =
  map watom_of_ratom (filter is_mapped l).
Proof.
  induction l as [|a l IH]; [reflexivity|]. cbn [flat_map filter]. destruct (is_mapped a); cbn [app map]; rewrite IH; reflexivity.
Qed.

Theorem read_write_content (m : rmol) : rmol_ok m -> (forall u v o, In (u, v, o) (mapped_bonds m) -> u <> v) ->
  exists w, graph_to_wmol (graph_of m) = Some w /\
    fst w = map watom_of_ratom (filter is_mapped (rm_atoms m)) /\
    length (snd w) = length (mapped_bonds m) /\
    forall k u v o, nth_error (mapped_bonds m) k = Some (u, v, o) ->
      exists i j a b, nth_error (snd w) k = Some (i, j, bond_code o) /\
        nth_error (filter is_mapped (rm_atoms m)) i = Some a /\ ra_map a = u /\
        nth_error (filter is_mapped (rm_atoms m)) j = Some b /\ ra_map b = v.
Proof.
  intros Ok Hne. pose proof (graph_of_wf m Ok Hne) as W.
  destruct (graph_to_wmol_spec (graph_of m)) as [Tot Spec].
  destruct (graph_to_wmol (graph_of m)) as [w|] eqn:E; [|exfalso; apply (Tot W); reflexivity].
  exists w. split; [reflexivity|]. destruct (Spec w eq_refl) as (A & Lb & B).
  unfold graph_of in A, Lb, B. cbn [gnodes gedges] in A, Lb, B. unfold mapped_nodes in A. rewrite watoms_mapped in A.
  split; [exact A|]. split; [exact Lb|].
  intros k u v o Ek. destruct (B k u v o Ek) as (i & j & Eb & Ni & Nj).
  assert (forall n x, nth_error (node_ids (LG (mapped_nodes m) (mapped_bonds m))) n = Some x ->
            exists a, nth_error (filter is_mapped (rm_atoms m)) n = Some a /\ ra_map a = x) as K.
  { unfold node_ids, mapped_nodes. cbn [gnodes]. generalize (rm_atoms m). intros l. induction l as [|a l IH]; intros n x En.
    - destruct n; discriminate.
    - cbn [flat_map filter] in *. destruct (is_mapped a); [|apply IH; exact En].
      destruct n as [|n]; cbn in En |- *; [inversion En; eauto|apply IH; exact En]. }
  destruct (K i u Ni) as (a & Ea & Ma). destruct (K j v Nj) as (b & Eb' & Mb).
  exists i, j, a, b. auto.
Qed.

Example C01_read_write_content_nonvacuous :
  rmol_ok ex_mr /\ graph_to_wmol (graph_of ex_mr) =
    Some ([WA 70%N 0 1 3; WA 17013%N 0 2 0; WA 82%N (-1) 3 1], [(0%nat, 1%nat, 1%N)]).
Proof. split; [exact ex_mr_ok|reflexivity]. Qed.
