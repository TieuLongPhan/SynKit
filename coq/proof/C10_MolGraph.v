(** C10 — proofs: GraphToMol.graph_to_mol after MolToGraph.transform (default flags) hands back to RDKit exactly
    the atoms it read (symbol, charge, atom map, total hydrogen count as explicit no-implicit count) and exactly the
    bonds it read (type by get_bond_type_from_order).  Proved for an arbitrary numbering of the atoms; the default flags (node id =
    atom index + 1) are one instance, the reaction path (proof/C10_MolMapped.v) the other. *)
From Coq Require Import String List NArith ZArith Bool Lia.
From SK Require Import lib.LGraph lib.StrJoin model.C10_Model proof.C10_Views proof.C10_Build proof.C10_Copy
  proof.C10_G2MSpec.
Import ListNotations.
Local Open Scope Z_scope.

Fixpoint num (idx : N) (l : list ratom) : list (N * natt) :=
  match l with [] => [] | a :: r => (N.succ idx, atom_att a) :: num (N.succ idx) r end.

Lemma num_ids_gt idx l k : In k (map fst (num idx l)) -> (idx < k)%N.
Proof.
  revert idx. induction l as [|a r IH]; intros idx; simpl; [intros []|]. intros [<-|H]; [lia|]. apply IH in H. lia.
Qed.
Lemma num_nodup idx l : NoDup (map fst (num idx l)).
Proof.
  revert idx. induction l as [|a r IH]; intros idx; simpl; constructor; [|apply IH].
  intros H. apply num_ids_gt in H. lia.
Qed.

Lemma m2g_nodes_ff atoms : forall idx (g : gr) i2,
  (forall n, In n (node_ids g) -> (n <= idx)%N) -> gwf g ->
  let st := m2g_nodes false false idx atoms (g, i2) in
  gnodes (fst st) = gnodes g ++ num idx atoms /\ gedges (fst st) = gedges g /\ gwf (fst st) /\
  (forall bi, assoc bi (snd st) =
     if (idx <=? bi)%N && (bi <? idx + N.of_nat (List.length atoms))%N then Some (N.succ bi) else assoc bi i2).
Proof.
  induction atoms as [|a r IH]; intros idx g i2 B W; cbn [m2g_nodes num].
  - cbv zeta. simpl. rewrite app_nil_r. split; [reflexivity|split; [reflexivity|split; [exact W|]]]. intros bi.
    destruct (N.leb_spec idx bi); simpl; [|reflexivity]. destruct (N.ltb_spec bi (idx + 0)); [lia|reflexivity].
  - simpl andb. cbv iota. change (atom_id false idx a) with (N.succ idx). cbn [fst snd].
    assert (has_node g (N.succ idx) = false) as Hf.
    { destruct (has_node g (N.succ idx)) eqn:E; [|reflexivity]. apply has_node_in, B in E. lia. }
    rewrite (add_node_fresh g _ _ Hf).
    specialize (IH (N.succ idx) (LG (gnodes g ++ [(N.succ idx, atom_att a)]) (gedges g)) ((idx, N.succ idx) :: i2)).
    destruct IH as (E1 & E2 & W' & E3).
    + intros n Hn. unfold node_ids in Hn. simpl in Hn. rewrite map_app, in_app_iff in Hn. destruct Hn as [Hn|[<-|[]]]; [apply B in Hn|]; simpl; lia.
    + rewrite <- (add_node_fresh g _ _ Hf). apply gwf_add_node. exact W.
    + cbv zeta in *. rewrite E1. simpl gnodes. rewrite <- app_assoc. split; [reflexivity|split; [exact E2|split; [exact W'|]]].
      intros bi. rewrite E3. cbn [assoc].
      change (N.pos (Pos.of_succ_nat (List.length r))) with (N.of_nat (S (List.length r))). rewrite Nat2N.inj_succ.
      generalize (N.of_nat (List.length r)). intros len.
      destruct (N.eqb_spec bi idx) as [->|Hne].
      * assert ((N.succ idx <=? idx)%N = false) as -> by (apply N.leb_gt; lia).
        assert ((idx <=? idx)%N = true) as -> by (apply N.leb_le; lia).
        assert ((idx <? idx + N.succ len)%N = true) as -> by (apply N.ltb_lt; lia). reflexivity.
      * destruct (N.leb_spec (N.succ idx) bi) as [H1|H1]; destruct (N.leb_spec idx bi) as [H2|H2]; try lia; cbn [andb]; [|reflexivity].
        destruct (N.ltb_spec bi (N.succ idx + len)); destruct (N.ltb_spec bi (idx + N.succ len)); try lia; reflexivity.
Qed.

Lemma index_of_num l : forall idx i0 k, (k < N.of_nat (List.length l))%N ->
  index_of (N.succ (idx + k)) (map fst (num idx l)) i0 = Some (i0 + k)%N.
Proof.
  induction l as [|a r IH]; intros idx i0 k Hk; [simpl in Hk; lia|]. simpl.
  destruct (N.eqb_spec (N.succ idx) (N.succ (idx + k))) as [E|Hne].
  - f_equal. lia.
  - assert (k <> 0)%N by (intros ->; apply Hne; f_equal; lia).
    replace (N.succ (idx + k)) with (N.succ (N.succ idx + N.pred k)) by lia.
    rewrite IH by (simpl List.length in Hk; lia). f_equal. lia.
Qed.


Lemma wf_bonds_spec n l : wf_bonds n l = true ->
  uniq_pairs (bonds_e l) = true /\ forall b e o, In (b, e, o) l -> (b < n)%N /\ (e < n)%N /\ b <> e.
Proof.
  induction l as [|[[b e] o] r IH]; [intros _; split; [reflexivity|intros ? ? ? []]|].
  simpl wf_bonds. rewrite !andb_true_iff. intros [[[[H1 H2] H3] H4] H5]. destruct (IH H5) as [U Hall]. split.
  - simpl. rewrite bond_find_e. destruct (bond_find b e r); [discriminate|]. exact U.
  - intros b' e' o' [E|Hin]; [|apply (Hall _ _ _ Hin)]. inversion E; subst.
    apply N.ltb_lt in H1, H2. apply negb_true_iff, N.eqb_neq in H3. auto.
Qed.

(** ** the graph of a record whose atom at index k became node [T k] (either setting of the flags) *)
Section Numbered.
Variable m : rmol.
Variables drop ui : bool.
Hypothesis Hwf : wf_mol m = true.
Let atoms := fst m.
Let bonds := snd m.
Let n := N.of_nat (List.length atoms).
Let st := m2g_nodes drop ui 0%N atoms (g_empty, []).
Let g0 := fst st.
Let G := mol_to_graph m drop ui.
(** what the node loop left: the nodes, and the index -> id table on the atom indices *)
Variable nodes : list (N * natt).
Variable T : N -> N.
Let ids := map fst nodes.
Hypothesis Hst : gnodes g0 = nodes /\ gedges g0 = [] /\ gwf g0 /\ forall k, (k < n)%N -> assoc k (snd st) = Some (T k).
Hypothesis HT : forall k, (k < n)%N -> index_of (T k) ids 0 = Some k.
Hypothesis Hlen : List.length nodes = List.length atoms.

Lemma bonds_facts : uniq_pairs (bonds_e bonds) = true /\ forall b e o, In (b, e, o) bonds -> (b < n)%N /\ (e < n)%N /\ b <> e.
Proof. apply wf_bonds_spec. exact Hwf. Qed.
Lemma bond_find_in b e o : In (b, e, o) bonds -> bond_find b e bonds = Some o.
Proof.
  intros Hin. destruct bonds_facts as [U _].
  assert (In (b, e, EA (Some (OS o)) None) (bonds_e bonds)) as Hin'.
  { unfold bonds_e. apply in_map_iff. exists (b, e, o). auto. }
  pose proof (uniq_find _ b e _ b e U Hin' (pair_eqb_refl b e)) as F. rewrite bond_find_e in F.
  destruct (bond_find b e bonds) as [o'|]; [|discriminate]. simpl in F. congruence.
Qed.
Lemma bond_find_lt i j o : bond_find i j bonds = Some o -> (i < n)%N /\ (j < n)%N /\ i <> j.
Proof.
  intros F. destruct (bond_find_ends i j bonds o F) as (b & e & Hin & Hbe). destruct bonds_facts as [_ HB].
  destruct (HB b e o Hin) as (H1 & H2 & H3). destruct Hbe as [[<- <-]|[<- <-]]; auto.
Qed.
Lemma index_T u i : index_of u ids 0 = Some i -> (i < n)%N /\ u = T i.
Proof.
  intros I. pose proof (index_of_lt u ids 0%N i I) as L. unfold ids in L. rewrite map_length, Hlen in L. fold n in L.
  split; [lia|]. apply (index_of_inj ids 0%N u (T i) i I). apply HT. lia.
Qed.

Definition mdT (x y : N) : option eatt :=
  match index_of x ids 0, index_of y ids 0 with
  | Some b, Some e => option_map (fun o => EA (Some (OS o)) None) (bond_find b e bonds)
  | _, _ => None
  end.
Lemma mdT_sym x y : mdT x y = mdT y x.
Proof. unfold mdT. destruct (index_of x ids 0), (index_of y ids 0); try reflexivity. rewrite bond_find_sym. reflexivity. Qed.
Lemma mdT_of i j : (i < n)%N -> (j < n)%N -> mdT (T i) (T j) = option_map (fun o => EA (Some (OS o)) None) (bond_find i j bonds).
Proof. intros Hi Hj. unfold mdT. rewrite (HT i Hi), (HT j Hj). reflexivity. Qed.
Lemma mdT_some x y z : mdT x y = Some z ->
  exists i j o, x = T i /\ y = T j /\ bond_find i j bonds = Some o /\ z = EA (Some (OS o)) None.
Proof.
  unfold mdT. destruct (index_of x ids 0) as [i|] eqn:Ix; [|discriminate]. destruct (index_of y ids 0) as [j|] eqn:Iy; [|discriminate].
  destruct (bond_find i j bonds) as [o|] eqn:F; [|discriminate]. intros [= <-].
  exists i, j, o. destruct (index_T x i Ix) as [_ ->]. destruct (index_T y j Iy) as [_ ->]. auto.
Qed.

Let pairs := map (fun b : N * N * Z => (T (fst (fst b)), T (snd (fst b)))) bonds.

Lemma mol_fold : G = fold_left (estep mdT) pairs g0.
Proof.
  unfold G, mol_to_graph. fold atoms. fold st. fold g0. unfold pairs. rewrite fold_left_map'. apply fold_left_ext_in.
  intros acc [[b e] o] Hin. unfold m2g_bond, estep. simpl fst. simpl snd.
  destruct Hst as (_ & _ & _ & HA). destruct bonds_facts as [_ HB]. destruct (HB b e o Hin) as (Hb & He & _).
  rewrite (HA b Hb), (HA e He), (mdT_of b e Hb He), (bond_find_in b e o Hin). reflexivity.
Qed.
Lemma mol_gwf : gwf G.
Proof. rewrite mol_fold. apply fold_estep_gwf. apply Hst. Qed.
Lemma mol_gnodes : gnodes G = nodes.
Proof.
  rewrite mol_fold, fold_estep_node_ids; [apply Hst|].
  intros e He. unfold pairs in He. apply in_map_iff in He. destruct He as ([[b e'] o] & <- & Hin). simpl.
  destruct bonds_facts as [_ HB]. destruct (HB b e' o Hin) as (Hb & He' & _).
  assert (forall k, (k < n)%N -> has_node g0 (T k) = true) as Hk.
  { intros k Hk. apply has_node_in. unfold node_ids. destruct Hst as (-> & _). apply (index_of_in _ _ _ _ (HT k Hk)). }
  split; apply Hk; assumption.
Qed.
Lemma mol_adj x y : adj G x y = mdT x y.
Proof.
  rewrite mol_fold, (fold_estep_adj mdT mdT_sym); [|left; unfold adj; destruct Hst as (_ & -> & _); reflexivity].
  unfold adj at 1. destruct Hst as (_ & -> & _). simpl.
  destruct (pmatch x y pairs) eqn:PM; [reflexivity|]. destruct (mdT x y) as [z|] eqn:D; [|reflexivity]. exfalso.
  destruct (mdT_some x y z D) as (i & j & o & -> & -> & F & _).
  destruct (bond_find_ends i j bonds o F) as (b & e & Hin & Hbe).
  assert (pmatch (T i) (T j) pairs = true); [|congruence]. unfold pmatch. apply existsb_exists. exists (T b, T e). split.
  - unfold pairs. apply in_map_iff. exists (b, e, o). auto.
  - simpl. apply pair_eqb_spec. destruct Hbe as [[-> ->]|[-> ->]]; auto.
Qed.

Theorem mol_graph_roundtrip_numbered : map (fun p : N * natt => g2m_atom (snd p)) nodes = map atom_back atoms ->
  exists bonds', graph_to_mol G = Some (map atom_back atoms, bonds') /\
                 forall i j, bond_find i j bonds' = option_map bond_type (bond_find i j bonds).
Proof.
  intros Hback.
  assert (forall u v x, adj G u v = Some x -> u <> v /\ scalar_ord x) as Hmol.
  { intros u v x A. rewrite mol_adj in A. destruct (mdT_some u v x A) as (i & j & o & -> & -> & F & ->). split; [|exact Logic.I].
    destruct (bond_find_lt i j o F) as (Hi & Hj & Hne). intros E. apply Hne.
    pose proof (HT i Hi) as Ii. rewrite E, (HT j Hj) in Ii. congruence. }
  pose proof (graph_to_mol_numbered G mol_gwf Hmol T n bonds) as R. unfold node_ids in R.
  rewrite mol_gnodes, Hback in R. apply R.
  - exact HT.
  - rewrite map_length, Hlen. reflexivity.
  - intros i j Hi Hj. rewrite mol_adj. apply mdT_of; assumption.
  - intros b e o Hin. destruct bonds_facts as [_ HB]. destruct (HB b e o Hin) as (H1 & H2 & _). auto.
Qed.
End Numbered.

(** ** the default flags: node id = atom index + 1 *)
Lemma length_num l : forall idx, List.length (num idx l) = List.length l.
Proof. induction l as [|a r IH]; intros idx; simpl; [reflexivity|]. rewrite IH. reflexivity. Qed.
Lemma atoms_num l : forall idx, map (fun p : N * natt => g2m_atom (snd p)) (num idx l) = map atom_back l.
Proof. induction l as [|a r IH]; intros idx; simpl; [reflexivity|]. rewrite IH. reflexivity. Qed.

Section Mol.
Variable m : rmol.
Hypothesis Hwf : wf_mol m = true.
Let atoms := fst m.
Let n := N.of_nat (List.length atoms).
Let st := m2g_nodes false false 0%N atoms (g_empty, []).

Lemma st_facts : gnodes (fst st) = num 0 atoms /\ gedges (fst st) = [] /\ gwf (fst st) /\
  forall k, (k < n)%N -> assoc k (snd st) = Some (N.succ k).
Proof.
  destruct (m2g_nodes_ff atoms 0%N g_empty []) as (E1 & E2 & W & E3); [intros k []|apply gwf_empty|].
  fold st in E1, E2, W, E3. split; [exact E1|split; [exact E2|split; [exact W|]]].
  intros k Hk. rewrite E3, N.add_0_l. fold n. destruct (N.leb_spec 0 k); [|lia]. destruct (N.ltb_spec k n); [reflexivity|lia].
Qed.
Lemma succ_index k : (k < n)%N -> index_of (N.succ k) (map fst (num 0 atoms)) 0 = Some k.
Proof. apply (index_of_num atoms 0%N 0%N). Qed.

Definition md : N -> N -> option eatt := mdT m (num 0 atoms).
Lemma md_sym u v : md u v = md v u.
Proof. apply mdT_sym. Qed.
Lemma md_of i j : (i < n)%N -> (j < n)%N ->
  md (N.succ i) (N.succ j) = option_map (fun o => EA (Some (OS o)) None) (bond_find i j (snd m)).
Proof. apply (mdT_of m (num 0 atoms) N.succ succ_index). Qed.
Lemma md_some u v z : md u v = Some z ->
  exists i j o, u = N.succ i /\ v = N.succ j /\ bond_find i j (snd m) = Some o /\ z = EA (Some (OS o)) None.
Proof. apply (mdT_some m (num 0 atoms) N.succ succ_index (length_num atoms 0%N)). Qed.
Lemma G_gnodes : gnodes (mol_to_graph m false false) = num 0 atoms.
Proof. exact (mol_gnodes m false false Hwf (num 0 atoms) N.succ st_facts succ_index). Qed.
Lemma G_adj u v : adj (mol_to_graph m false false) u v = md u v.
Proof. exact (mol_adj m false false Hwf (num 0 atoms) N.succ st_facts succ_index (length_num atoms 0%N) u v). Qed.

Theorem mol_graph_roundtrip :
  exists bonds', graph_to_mol (mol_to_graph m false false) = Some (map atom_back atoms, bonds') /\
                 forall i j, bond_find i j bonds' = option_map bond_type (bond_find i j (snd m)).
Proof.
  exact (mol_graph_roundtrip_numbered m false false Hwf (num 0 atoms) N.succ st_facts succ_index (length_num atoms 0%N)
           (atoms_num atoms 0%N)).
Qed.
End Mol.

(** non-vacuity: [NH4+] (index 0, map 7) ... a pyridine-like ring fragment c:n, C=O *)
Local Open Scope string_scope.
Definition ex_mol : rmol :=
  ([RAt (s2l "N") false 4 1 7; RAt (s2l "c") true 1 0 0; RAt (s2l "n") true 0 0 0; RAt (s2l "O") false 0 0 0],
   [(1%N, 2%N, 3); (3%N, 1%N, 4)]).
Example mol_graph_roundtrip_ex :
  wf_mol ex_mol = true /\
  graph_to_mol (mol_to_graph ex_mol false false)
  = Some (map atom_back (fst ex_mol), [(1%N, 2%N, 3); (1%N, 3%N, 4)]).
Proof. vm_compute. auto. Qed.

(** ** SMILES -> graph -> SMILES under the RDKit contract (explicit premises; monitored by the oracle on every mol case) *)
Theorem smiles_roundtrip_under_contract
  (Smi : Type) (read : Smi -> option rmol) (write : list watom * list (N * N * Z) -> option Smi) (canon : Smi -> Smi) :
  (forall s m, read s = Some m -> wf_mol m = true /\ forall b e o, In (b, e, o) (snd m) -> bond_type o = o) ->
  (forall s m bonds', read s = Some m -> (forall i j, bond_find i j bonds' = bond_find i j (snd m)) ->
                      write (map atom_back (fst m), bonds') = Some (canon s)) ->
  forall s m, read s = Some m ->
    match graph_to_mol (mol_to_graph m false false) with Some w => write w | None => None end = Some (canon s).
Proof.
  intros C1 C2 s m R. destruct (C1 s m R) as [Hwf Hbt]. destruct (mol_graph_roundtrip m Hwf) as (bonds' & E & Hb).
  rewrite E. apply (C2 s m bonds' R). intros i j. rewrite Hb. destruct (bond_find i j (snd m)) as [o|] eqn:F; [|reflexivity].
  simpl. destruct (bond_find_in_list i j _ o F) as (b & e & Hin). rewrite (Hbt b e o Hin). reflexivity.
Qed.

(** the premises of smiles_roundtrip_under_contract are satisfiable with a reader that does return molecules *)
Example smiles_contract_ex :
  let read := fun _ : unit => Some ex_mol in
  let write := fun _ : list watom * list (N * N * Z) => Some tt in
  (forall s m, read s = Some m -> wf_mol m = true /\ forall b e o, In (b, e, o) (snd m) -> bond_type o = o) /\
  match graph_to_mol (mol_to_graph ex_mol false false) with Some w => write w | None => None end = Some tt.
Proof.
  cbv zeta. split.
  - intros s m [= <-]. split; [reflexivity|]. simpl. intros b e o [E|[E|[]]]; inversion E; reflexivity.
  - vm_compute. reflexivity.
Qed.
