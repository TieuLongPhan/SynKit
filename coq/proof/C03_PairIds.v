(** C03 — where the pair ids come from (default-mode rule preparation) and where they go (gluing): two atoms of the
    prepared rule share a pair id only if both were bonded to ONE explicit hydrogen of the template, and two atoms of a
    glued ITS share a pair id only if they are the images of two such rule atoms.  With [explicit_h_wiring] this ties
    every re-materialised hydrogen to the template's own hydrogen transfers. *)
From Coq Require Import List NArith ZArith Bool Lia.
From SK Require Import lib.Tok lib.LGraph model.C03_Model proof.C03_Proof proof.C03_Glue proof.C03_Backward proof.C03_Skeleton
                       proof.C03_Wiring.
Import ListNotations.
Local Open Scope Z_scope.

(** * neighbours are monotone in the edge list *)
Lemma nbrs_in {A B} (g : lgraph A B) h x :
  In x (nbrs g h) <-> exists e, In e (gedges g) /\ ((fst (fst e) = h /\ snd (fst e) = x) \/ (fst (fst e) <> h /\ snd (fst e) = h /\ fst (fst e) = x)).
Proof.
  unfold nbrs. rewrite in_flat_map. split.
  - intros ([[a b] o] & I & Ix). exists (a, b, o). split; [exact I|]. cbn [fst snd].
    destruct (N.eqb_spec a h) as [->|Na]; [destruct Ix as [<-|[]]; auto|].
    destruct (N.eqb_spec b h) as [->|Nb]; [destruct Ix as [<-|[]]; auto|destruct Ix].
  - intros ([[a b] o] & I & H). exists (a, b, o). split; [exact I|]. cbn [fst snd] in H.
    destruct H as [[-> ->]|(Na & -> & ->)].
    + rewrite N.eqb_refl. left. reflexivity.
    + destruct (N.eqb_spec x h); [contradiction|]. rewrite N.eqb_refl. left. reflexivity.
Qed.
Lemma nbrs_mono {A B} (g g0 : lgraph A B) h x : incl (gedges g) (gedges g0) -> In x (nbrs g h) -> In x (nbrs g0 h).
Proof. intros Hi H. apply nbrs_in in H. destruct H as (e & I & He). apply nbrs_in. exists e. split; [apply Hi; exact I|exact He]. Qed.

(** * pair ids during _strip_explicit_h: every id on an atom was assigned to a hydrogen bonded to that atom *)
Definition pinv (tpl g : its) (asg : list (N * N)) : Prop :=
  incl (gedges g) (gedges tpl) /\
  forall x A p, In (x, A) (gnodes g) -> In p (hp_of A) -> exists h, In (p, h) asg /\ In x (nbrs tpl h).

Lemma hp_of_bump pid A p : In p (hp_of (bump_i pid A)) -> In p (hp_of A) \/ pid = Some p.
Proof.
  unfold hp_of, bump_i. cbn [i_hp]. destruct pid as [q|]; [|auto]. unfold hp_append.
  destruct (i_hp A); simpl; intros I; [apply in_app_or in I; destruct I as [I|[<-|[]]]; auto|destruct I as [<-|[]]; auto].
Qed.

Lemma bump_fold_hp pid ns : forall (g : its) x A p,
  In (x, A) (gnodes (fold_left (fun g' y => if is_H_i g' y then g' else upd_node g' y (bump_i pid)) ns g)) -> In p (hp_of A) ->
  (exists A0, In (x, A0) (gnodes g) /\ In p (hp_of A0)) \/ (pid = Some p /\ In x ns).
Proof.
  induction ns as [|y r IH]; intros g x A p I Ip; [left; exists A; auto|].
  cbn [fold_left] in I. destruct (IH _ x A p I Ip) as [(A1 & I1 & P1)|[E Ix]]; [|right; split; [exact E|right; exact Ix]].
  destruct (is_H_i g y); [left; exists A1; auto|].
  unfold upd_node in I1; cbn [gnodes] in I1. apply in_map_iff in I1. destruct I1 as ([k A0] & E & I0). cbn [fst snd] in E.
  destruct (N.eqb_spec k y) as [->|Nk].
  - inversion E; subst. destruct (hp_of_bump pid A0 p P1) as [P0|Ep]; [left; exists A0; auto|right; split; [exact Ep|left; reflexivity]].
  - inversion E; subst. left. exists A1. auto.
Qed.

Lemma bump_fold_edges pid ns : forall g : its,
  gedges (fold_left (fun g' y => if is_H_i g' y then g' else upd_node g' y (bump_i pid)) ns g) = gedges g.
Proof. induction ns as [|y r IH]; intros g; [reflexivity|]. cbn [fold_left]. rewrite IH. destruct (is_H_i g y); reflexivity. Qed.

Lemma pinv_strip tpl g asg h pid :
  pinv tpl g asg -> pinv tpl (strip_i g h pid) (match pid with Some p => (p, h) :: asg | None => asg end).
Proof.
  intros [P1 P2]. unfold strip_i. destruct (has_node g h).
  - split.
    + unfold remove_node; cbn [gedges]. rewrite bump_fold_edges. intros e I. apply filter_In in I. apply P1. tauto.
    + intros x A p I Ip. unfold remove_node in I; cbn [gnodes] in I. apply filter_In in I. destruct I as [I _].
      destruct (bump_fold_hp pid (nbrs g h) g x A p I Ip) as [(A0 & I0 & P0)|[E Ix]].
      * destruct (P2 x A0 p I0 P0) as (h0 & H1 & H2). exists h0. split; [destruct pid; [right|]; exact H1|exact H2].
      * subst pid. exists h. split; [left; reflexivity|]. exact (nbrs_mono g tpl h x P1 Ix).
  - split; [exact P1|]. intros x A p I Ip. destruct (P2 x A p I Ip) as (h0 & H1 & H2). exists h0. split; [destruct pid; [right|]; exact H1|exact H2].
Qed.

(** the ids handed out by step 2 are distinct: id k goes to the k-th shared hydrogen *)
Definition asg_ok (asg : list (N * N)) (next : N) : Prop :=
  (forall p h, In (p, h) asg -> (p < next)%N) /\ (forall p h h', In (p, h) asg -> In (p, h') asg -> h = h').

Lemma strip_shared_pinv tpl (Q : N -> Prop) hs : (forall h, In h hs -> Q h) ->
  forall (t : triple) pid asg, pinv tpl (fst (fst t)) asg -> asg_ok asg pid -> (forall p h, In (p, h) asg -> Q h) ->
  exists asg', pinv tpl (fst (fst (fst (fold_left (fun (st : triple * N) h =>
         let '(rc, l, r, pid) := st in
         (strip_i rc h (Some pid), strip_m l h (Some pid), strip_m r h (Some pid), N.succ pid)) hs (t, pid))))) asg' /\
         (forall p h h', In (p, h) asg' -> In (p, h') asg' -> h = h') /\ (forall p h, In (p, h) asg' -> Q h).
Proof.
  induction hs as [|h r IH]; intros HQ t pid asg P [A1 A2] AQ; [cbn [fold_left fst]; eauto|].
  cbn [fold_left]. destruct t as [[rc l] rr]. cbn [fst] in P.
  apply (IH (fun x I => HQ x (or_intror I)) (strip_i rc h (Some pid), strip_m l h (Some pid), strip_m rr h (Some pid)) (N.succ pid) ((pid, h) :: asg)).
  - cbn [fst]. exact (pinv_strip tpl rc asg h (Some pid) P).
  - split.
    + intros p h0 [E|I]; [inversion E; subst; lia|specialize (A1 p h0 I); lia].
    + intros p h0 h1 [E0|I0] [E1|I1].
      * congruence.
      * inversion E0; subst. specialize (A1 _ _ I1). lia.
      * inversion E1; subst. specialize (A1 _ _ I0). lia.
      * eauto.
  - intros p h0 [E|I]; [inversion E; subst; apply HQ; left; reflexivity|eauto].
Qed.

Lemma step3_rc_pinv tpl hs : forall (t t' : triple) asg, pinv tpl (fst (fst t)) asg ->
  fold_left (fun (st : option triple) h =>
      match st with
      | None => None
      | Some (rc, l, r) => match fully_removable l r h with
                           | Some true => Some (strip_i rc h None, l, r) | Some false => st | None => None end
      end) hs (Some t) = Some t' -> pinv tpl (fst (fst t')) asg.
Proof.
  intros t t' asg. apply (step3_fold_inv (fun t0 => pinv tpl (fst (fst t0)) asg) (fun rc l r h => (strip_i rc h None, l, r))).
  intros rc l r h _ P _. exact (pinv_strip tpl rc asg h None P).
Qed.

Lemma refresh_types_hp rc l r rc' : refresh_types rc l r = Some rc' ->
  forall x A, In (x, A) (gnodes rc') -> exists A0, In (x, A0) (gnodes rc) /\ i_hp A = i_hp A0.
Proof.
  unfold refresh_types.
  match goal with |- context [fold_right ?f _ _] => set (F := f) end.
  destruct (fold_right F (Some []) (gnodes rc)) as [ns|] eqn:E; [|discriminate]. intros H. inversion H; subst. cbn [gnodes].
  clear H. revert ns E. induction (gnodes rc) as [|[k0 a0] r0 IH]; intros ns E x A I.
  - simpl in E. inversion E; subst. destruct I.
  - cbn [fold_right] in E. destruct (fold_right F (Some []) r0) as [ns0|]; [|unfold F in E; discriminate].
    unfold F at 1 in E. cbn [fst snd] in E.
    destruct (label l k0); [|discriminate]. destruct (label r k0); [|discriminate]. inversion E; subst. destruct I as [I|I].
    + inversion I; subst. exists a0. split; [left; reflexivity|reflexivity].
    + destruct (IH ns0 eq_refl x A I) as (A0 & I0 & E0). exists A0. split; [right; exact I0|exact E0].
Qed.

Theorem synrule_default_pairs (tpl rc : its) (l r : molg) :
  nodupb (node_ids tpl) = true -> (forall k a, In (k, a) (gnodes tpl) -> i_hp a = None) ->
  synrule tpl true = Some (rc, l, r) ->
  forall x y A B p, In (x, A) (gnodes rc) -> In (y, B) (gnodes rc) -> In p (hp_of A) -> In p (hp_of B) ->
  exists h, is_H_i tpl h = true /\ In x (nbrs tpl h) /\ In y (nbrs tpl h).
Proof.
  intros Hnd Hnone H. apply nodupb_NoDup in Hnd. destruct (synrule_default_inv tpl rc l r H) as (rc1 & Es & Er). clear H.
  set (rc0 := standardize_hydrogen tpl) in *. set (l0 := dec_side iG eG rc0) in *. set (r0 := dec_side iH eH rc0) in *.
  assert (P0 : pinv tpl (init_i rc0) []).
  { split; [unfold init_i, rc0, standardize_hydrogen, map_nodes; cbn [gedges]; intros e I; exact I|].
    intros x A p I Ip. exfalso. unfold init_i, rc0, standardize_hydrogen, map_nodes in I; cbn [gnodes] in I. rewrite map_map in I.
    apply in_map_iff in I. destruct I as ([k a] & E & I). cbn [fst snd] in E. inversion E; subst. clear E.
    unfold hp_of in Ip. cbn [i_hp std_h_node] in Ip. rewrite (Hnone _ a I) in Ip.
    cbn [a_el iG set_hc] in Ip. destruct (N.eqb (a_el (iG a)) EL_H); simpl in Ip; exact Ip. }
  unfold strip_explicit_h in Es. cbn [fst snd] in Es.
  destruct (shared_h (init_m l0) (init_m r0)) as [hs|] eqn:Eh; [|discriminate]. unfold strip_shared in Es.
  pose proof (shared_h_template tpl hs Hnd Eh) as HsH.
  destruct (strip_shared_pinv tpl (fun h => is_H_i tpl h = true) (sort_N hs) HsH (init_i rc0, init_m l0, init_m r0) 1%N [] P0) as (asg & P2 & U2 & Q2).
  { split; [intros p h []|intros p h h' []]. }
  { intros p h []. }
  match type of Es with context [step3_rc ?z] => set (t2 := z) in * end.
  destruct (step3_rc t2) as [t3|] eqn:E3; [|discriminate].
  destruct (step3_l t3) as [t4|] eqn:E4; [|discriminate].
  unfold step3_rc in E3. pose proof (step3_rc_pinv tpl _ t2 t3 asg P2 E3) as P3.
  pose proof (step3_l_rc _ _ _ E4) as R4. pose proof (step3_r_rc _ _ _ Es) as R5. cbn [fst] in R5.
  rewrite R4 in R5. rewrite <- R5 in P3. destruct P3 as [_ P3].
  intros x y A B p Ix Iy Px Py.
  destruct (refresh_types_hp _ _ _ _ Er x A Ix) as (A0 & Ix0 & Ex). destruct (refresh_types_hp _ _ _ _ Er y B Iy) as (B0 & Iy0 & Ey).
  unfold hp_of in Px, Py. rewrite Ex in Px. rewrite Ey in Py.
  destruct (P3 x A0 p Ix0 Px) as (h1 & H1 & N1). destruct (P3 y B0 p Iy0 Py) as (h2 & H2 & N2).
  rewrite (U2 p h2 h1 H2 H1) in N2. exists h1. split; [exact (Q2 p h1 H1)|auto].
Qed.

(** * gluing copies the rule's pair ids onto the matched atoms and nothing else *)
Theorem glue_share_pair host rc m T a b :
  wf_hostb host = true -> wf_rcb rc = true -> match_rcb host rc m = true -> glue host rc m = Some T ->
  share_pair T a b ->
  exists x y X Y p, mget m x = Some a /\ mget m y = Some b /\ In (x, X) (gnodes rc) /\ In (y, Y) (gnodes rc) /\
                    In p (hp_of X) /\ In p (hp_of Y).
Proof.
  intros Hwh Hwr Hm Hg (p & A & B & IA & IB & PA & PB).
  pose proof (match_rcb_sound host rc m (wf_rc_nodup rc Hwr) Hm) as MO.
  pose proof (glued_nodup host rc m T Hwh Hwr Hm Hg) as Hnd.
  assert (K : forall c C, In (c, C) (gnodes T) -> In p (hp_of C) ->
              exists x X, mget m x = Some c /\ In (x, X) (gnodes rc) /\ In p (hp_of X)).
  { intros c C IC PC. pose proof (assoc_nodup_in c (gnodes T) C Hnd IC) as Lc. fold (label T c) in Lc.
    destruct (in_dec N.eq_dec c (map snd m)) as [I|NI].
    - apply in_map_iff in I. destruct I as ([x c'] & E & I). simpl in E; subst c'.
      destruct (matched_rc_node host rc m Hwr Hm x c I) as (X & Ix). pose proof (matched_mget host rc m Hwr Hm x c I) as Eg.
      destruct (glued_node host rc m T Hwr Hm Hg x c X Eg Ix) as (hn & _ & Hl). rewrite Hl in Lc. inversion Lc; subst C.
      exists x, X. split; [exact Eg|]. split; [exact Ix|]. unfold hp_of in *. cbn [i_hp] in PC. destruct (i_hp X); exact PC.
    - rewrite (unglued_node host rc m T Hg c NI) in Lc. destruct (label host c); inversion Lc; subst C. destruct PC. }
  destruct (K a A IA PA) as (x & X & E1 & I1 & P1). destruct (K b B IB PB) as (y & Y & E2 & I2 & P2).
  exists x, y, X, Y, p. auto 10.
Qed.

(** * the chain: in default mode, two atoms of a proposed ITS that share a pair id are the images of two rule atoms
      that were both bonded to one explicit hydrogen of the template *)
Theorem default_share_pair_template tpl rc l r host m T a b :
  nodupb (node_ids tpl) = true -> (forall k n, In (k, n) (gnodes tpl) -> i_hp n = None) -> synrule tpl true = Some (rc, l, r) ->
  wf_hostb host = true -> wf_rcb rc = true -> match_rcb host rc m = true -> glue host rc m = Some T ->
  share_pair T a b ->
  exists x y h, mget m x = Some a /\ mget m y = Some b /\ is_H_i tpl h = true /\ In x (nbrs tpl h) /\ In y (nbrs tpl h).
Proof.
  intros Hnd Hnone Hs Hwh Hwr Hm Hg Hsp.
  destruct (glue_share_pair host rc m T a b Hwh Hwr Hm Hg Hsp) as (x & y & X & Y & p & E1 & E2 & I1 & I2 & P1 & P2).
  destruct (synrule_default_pairs tpl rc l r Hnd Hnone Hs x y X Y p I1 I2 P1 P2) as (h & H1 & H2 & H3).
  exists x, y, h. auto 10.
Qed.
