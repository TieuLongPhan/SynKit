(** C11 — the WL-1 colour refinement of AutoEst is equivariant: a label-preserving automorphism preserves the
    colour of every node after every number of rounds, so the estimated orbits (colour classes) never separate
    two nodes of one true orbit (clause 2 of the property, second sentence).  Stdlib lists. *)
From Coq Require Import List NArith Bool Lia Permutation Sorted.
From SK Require Import lib.LGraph model.C11_Model model.C11_Order proof.C11_Aut.
Import ListNotations.

(** ---------- the palette: a label gets the index of its first occurrence among the distinct labels ---------- *)
Section Pal.
Variable X : Type.
Variable xeqb : X -> X -> bool.
Hypothesis xeqb_refl : forall x, xeqb x x = true.

(** the list of distinct labels after the sweep *)
Fixpoint final (labels seen : list X) : list X :=
  match labels with
  | [] => seen
  | x :: r => match index_of xeqb x seen 0%N with Some _ => final r seen | None => final r (seen ++ [x]) end
  end.

Definition idx (l : list X) (x : X) : N :=
  match index_of xeqb x l 0%N with Some i => i | None => 0%N end.

Lemma index_of_app_some x seen t : forall k i, index_of xeqb x seen k = Some i -> index_of xeqb x (seen ++ t) k = Some i.
Proof.
  induction seen as [|y r IH]; simpl; intros k i H; [discriminate|].
  destruct (xeqb x y); [exact H | apply IH; exact H].
Qed.

Lemma index_of_app_none x seen t : forall k, index_of xeqb x seen k = None ->
  index_of xeqb x (seen ++ t) k = index_of xeqb x t (k + N.of_nat (length seen))%N.
Proof.
  induction seen as [|y r IH]; simpl; intros k H.
  - rewrite N.add_0_r. reflexivity.
  - destruct (xeqb x y); [discriminate|]. rewrite IH by exact H. f_equal. lia.
Qed.

Lemma final_prefix labels : forall seen, exists t, final labels seen = seen ++ t.
Proof.
  induction labels as [|x r IH]; intros seen; simpl.
  - exists []. rewrite app_nil_r. reflexivity.
  - destruct (index_of xeqb x seen 0%N); [apply IH|].
    destruct (IH (seen ++ [x])) as (t & E). exists ([x] ++ t). rewrite E, app_assoc. reflexivity.
Qed.

(** the colours are a function of the label alone *)
Lemma assign_map labels : forall seen, assign xeqb labels seen = map (idx (final labels seen)) labels.
Proof.
  induction labels as [|x r IH]; intros seen; simpl; [reflexivity|].
  destruct (index_of xeqb x seen 0%N) as [i|] eqn:E.
  - rewrite IH. f_equal. unfold idx. destruct (final_prefix r seen) as (t & ->).
    rewrite (index_of_app_some x seen t 0%N i E). reflexivity.
  - rewrite IH. f_equal. unfold idx. destruct (final_prefix r (seen ++ [x])) as (t & ->).
    rewrite <- app_assoc. rewrite (index_of_app_none x seen ([x] ++ t) 0%N E). simpl.
    rewrite xeqb_refl. reflexivity.
Qed.
End Pal.
Arguments idx {X}.
Arguments final {X}.

Lemma pair_eqb_refl x : pair_eqb x x = true.
Proof. unfold pair_eqb. rewrite !N.eqb_refl. reflexivity. Qed.
Lemma lpeqb_refl l : lpeqb l l = true.
Proof. induction l; simpl; [reflexivity|]. rewrite pair_eqb_refl. exact IHl. Qed.
Lemma rl_eqb_refl x : rl_eqb x x = true.
Proof. unfold rl_eqb. rewrite N.eqb_refl, lpeqb_refl. reflexivity. Qed.

(** ---------- stable insertion sort: a permutation of the input, sorted; for an antisymmetric order the result
    depends only on the multiset ---------- *)
Section Sort.
Variable X : Type.
Variable leb : X -> X -> bool.
Notation R := (fun a b => leb a b = true).

Lemma ins_by_perm x l : Permutation (ins_by leb x l) (x :: l).
Proof.
  induction l as [|y r IH]; simpl; [apply Permutation_refl|].
  destruct (leb x y); [apply Permutation_refl|].
  apply Permutation_trans with (y :: x :: r); [apply perm_skip; exact IH | apply perm_swap].
Qed.

Lemma sort_by_perm l : Permutation (sort_by leb l) l.
Proof.
  induction l as [|x r IH]; simpl; [apply Permutation_refl|].
  apply Permutation_trans with (x :: sort_by leb r); [apply ins_by_perm | apply perm_skip; exact IH].
Qed.

Hypothesis total : forall a b, leb a b = false -> leb b a = true.

Lemma ins_by_sorted x l : Sorted R l -> Sorted R (ins_by leb x l).
Proof.
  induction l as [|y r IH]; simpl; intros H; [repeat constructor|].
  destruct (leb x y) eqn:E.
  - constructor; [exact H | constructor; exact E].
  - inversion H as [|? ? Hr Hh]; subst. constructor; [apply IH; exact Hr|].
    destruct r as [|z r']; simpl.
    + constructor. apply total. exact E.
    + destruct (leb x z); constructor; [apply total; exact E | inversion Hh; assumption].
Qed.

Lemma sort_by_sorted l : Sorted R (sort_by leb l).
Proof. induction l as [|x r IH]; simpl; [constructor | apply ins_by_sorted; exact IH]. Qed.

Hypothesis trans : forall a b c, leb a b = true -> leb b c = true -> leb a c = true.

Lemma strongly_sorted_unique l1 : forall l2,
  StronglySorted R l1 -> StronglySorted R l2 -> Permutation l1 l2 ->
  (forall a b, In a l1 -> In b l1 -> leb a b = true -> leb b a = true -> a = b) -> l1 = l2.
Proof.
  induction l1 as [|a r1 IH]; intros l2 S1 S2 P Hanti.
  - apply Permutation_nil in P. subst. reflexivity.
  - destruct l2 as [|b r2]; [apply Permutation_sym, Permutation_nil in P; discriminate|].
    inversion S1 as [|? ? S1' F1]; subst. inversion S2 as [|? ? S2' F2]; subst.
    assert (a = b).
    { assert (Ha : In a (b :: r2)) by (apply (Permutation_in _ P); left; reflexivity).
      assert (Hb : In b (a :: r1)) by (apply (Permutation_in _ (Permutation_sym P)); left; reflexivity).
      destruct Ha as [->|Ha]; [reflexivity|]. destruct Hb as [->|Hb]; [reflexivity|].
      rewrite Forall_forall in F1, F2.
      apply Hanti; [left; reflexivity | right; exact Hb | apply F1; exact Hb | apply F2; exact Ha]. }
    subst b. f_equal. apply IH; [exact S1' | exact S2' | exact (Permutation_cons_inv P)|].
    intros x y Hx Hy. apply Hanti; right; assumption.
Qed.

Lemma sort_by_unique l l' :
  Permutation l l' ->
  (forall a b, In a l -> In b l -> leb a b = true -> leb b a = true -> a = b) ->
  sort_by leb l' = sort_by leb l.
Proof.
  intros P Hanti.
  assert (Tr : Relations_1.Transitive R) by (intros a b c; apply trans).
  symmetry. apply strongly_sorted_unique.
  - apply Sorted_StronglySorted; [exact Tr | apply sort_by_sorted].
  - apply Sorted_StronglySorted; [exact Tr | apply sort_by_sorted].
  - apply Permutation_trans with l; [apply sort_by_perm|].
    apply Permutation_trans with l'; [exact P | apply Permutation_sym, sort_by_perm].
  - intros a b Ha Hb. apply Hanti; apply (Permutation_in _ (sort_by_perm l)); assumption.
Qed.
End Sort.

Lemma pair_leb_spec a b : pair_leb a b = true <-> (fst a < fst b \/ (fst a = fst b /\ snd a <= snd b))%N.
Proof. unfold pair_leb. rewrite lexN_spec, N.leb_le. reflexivity. Qed.

Lemma pair_leb_total a b : pair_leb a b = false -> pair_leb b a = true.
Proof. rewrite <- not_true_iff_false, !pair_leb_spec. lia. Qed.

Lemma pair_leb_trans a b c : pair_leb a b = true -> pair_leb b c = true -> pair_leb a c = true.
Proof. rewrite !pair_leb_spec. lia. Qed.

Lemma pair_leb_antisym a b : pair_leb a b = true -> pair_leb b a = true -> a = b.
Proof. rewrite !pair_leb_spec. destruct a, b; simpl. intros H1 H2. f_equal; lia. Qed.

(** [sortP] is [sort_by pair_leb] *)
Lemma sortP_perm l l' : Permutation l l' -> sortP l = sortP l'.
Proof.
  intros P. symmetry. apply (sort_by_unique _ pair_leb pair_leb_total pair_leb_trans l l' P).
  intros a b _ _. apply pair_leb_antisym.
Qed.

(** ---------- neighbours of a well-formed graph ---------- *)
Definition nbrs_es (es : list (N * N * elab)) (u : N) : list N :=
  flat_map (fun e => let '(a, b, _) := e in if N.eqb a u then [b] else if N.eqb b u then [a] else []) es.

Lemma nbrs_unfold (g : graph) u : nbrs g u = nbrs_es (gedges g) u.
Proof. reflexivity. Qed.

Lemma in_nbrs_es es u v :
  In v (nbrs_es es u) <-> exists a b x, In (a, b, x) es /\ ((a = u /\ b = v) \/ (a <> u /\ b = u /\ a = v)).
Proof.
  unfold nbrs_es. rewrite in_flat_map. split.
  - intros ([[a b] x] & Hin & Hv). exists a, b, x. split; [exact Hin|].
    destruct (N.eqb_spec a u) as [->|Hne].
    + destruct Hv as [<-|[]]. left. auto.
    + destruct (N.eqb_spec b u) as [->|Hne']; [|destruct Hv]. destruct Hv as [<-|[]]. right. auto.
  - intros (a & b & x & Hin & Hc). exists (a, b, x). split; [exact Hin|].
    destruct Hc as [[-> ->]|(Hne & -> & ->)].
    + rewrite N.eqb_refl. left. reflexivity.
    + destruct (N.eqb_spec v u) as [E|_]; [contradiction|]. rewrite N.eqb_refl. left. reflexivity.
Qed.

Lemma find_edge_in {B} a b (x : B) es : In (a, b, x) es -> find_edge a b es <> None.
Proof.
  induction es as [|[[a' b'] y] r IH]; simpl; [tauto|].
  intros [E|Hin].
  - inversion E; subst. rewrite !N.eqb_refl. simpl. discriminate.
  - destruct ((N.eqb a' a && N.eqb b' b) || (N.eqb a' b && N.eqb b' a)); [discriminate | auto].
Qed.

Lemma in_nbrs_adj es u v : (forall a b x, In (a, b, x) es -> a <> b) ->
  (In v (nbrs_es es u) <-> find_edge u v es <> None).
Proof.
  intros Hloop. rewrite in_nbrs_es. split.
  - intros (a & b & x & Hin & [[<- <-]|(_ & <- & <-)]).
    + eapply find_edge_in; eauto.
    + rewrite find_edge_sym. eapply find_edge_in; eauto.
  - intros H. destruct (find_edge u v es) as [x|] eqn:E; [|congruence].
    apply find_edge_some in E. destruct E as (a & b & Hin & [[-> ->]|[-> ->]]).
    + exists u, v, x. auto.
    + exists v, u, x. split; [exact Hin|]. right. split; [|auto]. intros ->. exact (Hloop _ _ _ Hin eq_refl).
Qed.

Lemma nbrs_es_nodup es u :
  (forall a b x, In (a, b, x) es -> a <> b) ->
  (forall l1 a b x l2, es = l1 ++ (a, b, x) :: l2 -> find_edge a b l2 = None) ->
  NoDup (nbrs_es es u).
Proof.
  induction es as [|[[a b] x] r IH]; intros Hloop Huniq; [constructor|].
  assert (Hr : NoDup (nbrs_es r u)).
  { apply IH.
    - intros a' b' x' Hin. apply (Hloop a' b' x'). right. exact Hin.
    - intros l1 a' b' x' l2 E. apply (Huniq ((a, b, x) :: l1) a' b' x' l2). rewrite E. reflexivity. }
  assert (Hloop' : forall a' b' x', In (a', b', x') r -> a' <> b') by (intros a' b' x' Hin; apply (Hloop a' b' x'); right; exact Hin).
  pose proof (Huniq [] a b x r eq_refl) as Hnone.
  change (nbrs_es ((a, b, x) :: r) u) with ((if N.eqb a u then [b] else if N.eqb b u then [a] else []) ++ nbrs_es r u).
  destruct (N.eqb_spec a u) as [->|Hne].
  - simpl. constructor; [|exact Hr]. intros Hin. apply (in_nbrs_adj r u b Hloop') in Hin. congruence.
  - destruct (N.eqb_spec b u) as [->|Hne']; [|exact Hr].
    simpl. constructor; [|exact Hr]. intros Hin. apply (in_nbrs_adj r u a Hloop') in Hin.
    rewrite find_edge_sym in Hin. congruence.
Qed.

Section WL.
Variable fn : nlab -> N.
Variable fe : elab -> N.
Variable g : graph.
Hypothesis Hwf : wf g.
Variable s : N -> N.
Hypothesis Hs : is_automorphism fn fe g s.

Lemma Hsimple : simple_graph g.
Proof. apply wf_simple. exact Hwf. Qed.

Lemma loopfree : forall a b x, In (a, b, x) (gedges g) -> a <> b.
Proof. intros a b x Hin. destruct Hwf as (_ & H & _). apply (H a b x Hin). Qed.

Lemma nbrs_adj u v : In v (nbrs g u) <-> LGraph.adj g u v <> None.
Proof. rewrite nbrs_unfold. apply in_nbrs_adj. exact loopfree. Qed.

Lemma nbrs_nodup u : NoDup (nbrs g u).
Proof.
  rewrite nbrs_unfold. apply nbrs_es_nodup; [exact loopfree|].
  intros l1 a b x l2 E. destruct Hwf as (_ & _ & H). apply (H l1 a b x l2 E).
Qed.

Lemma nbrs_nodes u v : In v (nbrs g u) -> In v (node_ids g).
Proof.
  rewrite nbrs_unfold, in_nbrs_es. intros (a & b & x & Hin & Hc).
  destruct Hwf as (_ & H & _). destruct (H a b x Hin) as (Ha & Hb & _).
  destruct Hc as [[-> ->]|(_ & -> & ->)]; assumption.
Qed.

Lemma adj_none_iff u v : In u (node_ids g) -> In v (node_ids g) ->
  (LGraph.adj g (s u) (s v) <> None <-> LGraph.adj g u v <> None).
Proof.
  intros Hu Hv. destruct Hs as (_ & _ & _ & H4). specialize (H4 u v Hu Hv). unfold adj_of in H4.
  destruct (LGraph.adj g (s u) (s v)), (LGraph.adj g u v); simpl in H4; try discriminate; split; congruence.
Qed.

Lemma s_surj v : In v (node_ids g) -> exists u, In u (node_ids g) /\ s u = v.
Proof. exact (isaut_surj fn fe g Hsimple s Hs v). Qed.

(** the neighbours of the image are the images of the neighbours *)
Lemma nbrs_image u : In u (node_ids g) -> Permutation (nbrs g (s u)) (map s (nbrs g u)).
Proof.
  intros Hu. apply NoDup_Permutation.
  - apply nbrs_nodup.
  - apply inj_in_NoDup_map; [apply nbrs_nodup|].
    intros x y Hx Hy. destruct Hs as (_ & H2 & _). apply H2; eapply nbrs_nodes; eauto.
  - intros w. rewrite in_map_iff. split.
    + intros Hw. destruct (s_surj w (nbrs_nodes _ _ Hw)) as (w' & Hw' & <-).
      exists w'. split; [reflexivity|]. apply nbrs_adj. apply adj_none_iff; auto. apply nbrs_adj. exact Hw.
    + intros (w' & <- & Hw'). apply nbrs_adj. apply adj_none_iff; auto; [eapply nbrs_nodes; eauto|].
      apply nbrs_adj. exact Hw'.
Qed.

(** a colouring that the automorphism preserves *)
Definition invariant (cs : colouring) : Prop := forall u, In u (node_ids g) -> col cs (s u) = col cs u.

Lemma col_combine (F : N -> N) u : In u (node_ids g) -> col (combine (node_ids g) (map F (node_ids g))) u = F u.
Proof. intros Hu. unfold col. rewrite assoc_combine_map by exact Hu. reflexivity. Qed.

Lemma s_nodes u : In u (node_ids g) -> In (s u) (node_ids g).
Proof. destruct Hs as (H1 & _). apply H1. Qed.

Lemma rlabel_invariant cs u : invariant cs -> In u (node_ids g) -> rlabel fe g cs (s u) = rlabel fe g cs u.
Proof.
  intros Hinv Hu. unfold rlabel. f_equal; [apply Hinv; exact Hu|].
  apply sortP_perm.
  eapply Permutation_trans; [apply Permutation_map; apply nbrs_image; exact Hu|].
  rewrite map_map.
  assert (E : map (fun w => nsig fe g cs (s u) (s w)) (nbrs g u) = map (nsig fe g cs u) (nbrs g u)).
  { apply map_ext_in. intros w Hw. pose proof (nbrs_nodes _ _ Hw) as Hwn. unfold nsig.
    rewrite (Hinv w Hwn). f_equal.
    destruct Hs as (_ & _ & _ & H4). specialize (H4 u w Hu Hwn). unfold adj_of in H4.
    destruct (LGraph.adj g (s u) (s w)), (LGraph.adj g u w); simpl in H4; congruence. }
  rewrite E. apply Permutation_refl.
Qed.

Lemma refine_once_colour cs u : In u (node_ids g) ->
  col (fst (refine_once fe g cs)) u =
  idx rl_eqb (final rl_eqb (map (rlabel fe g cs) (node_ids g)) []) (rlabel fe g cs u).
Proof.
  intros Hu. unfold refine_once. simpl. rewrite (assign_map _ rl_eqb rl_eqb_refl), map_map.
  apply (col_combine (fun v => idx rl_eqb (final rl_eqb (map (rlabel fe g cs) (node_ids g)) []) (rlabel fe g cs v))).
  exact Hu.
Qed.

Lemma refine_once_invariant cs : invariant cs -> invariant (fst (refine_once fe g cs)).
Proof.
  intros Hinv u Hu. rewrite !refine_once_colour by (try apply s_nodes; exact Hu).
  rewrite rlabel_invariant by assumption. reflexivity.
Qed.

Lemma refine_invariant k : forall cs, invariant cs -> invariant (refine fe g k cs).
Proof.
  induction k as [|k IH]; intros cs Hinv; [exact Hinv|].
  change (invariant (let '(cs', ch) := refine_once fe g cs in if ch then refine fe g k cs' else cs')).
  pose proof (refine_once_invariant cs Hinv) as H.
  destruct (refine_once fe g cs) as [cs' ch]. simpl in H. destruct ch; [apply IH; exact H | exact H].
Qed.

Lemma assoc_combine_fst {V} (G : N * V -> N) (l : list (N * V)) u a :
  assoc u l = Some a -> assoc u (combine (map fst l) (map G l)) = Some (G (u, a)).
Proof.
  induction l as [|[k v] r IH]; simpl; [discriminate|].
  destruct (N.eqb_spec u k) as [->|Hne]; [intros [= ->]; reflexivity | exact IH].
Qed.

Lemma assoc_some_in {V} u (l : list (N * V)) : In u (map fst l) -> exists a, assoc u l = Some a.
Proof.
  induction l as [|[k v] r IH]; simpl; [tauto|].
  intros H. destruct (N.eqb_spec u k) as [->|Hne]; [eauto|].
  destruct H as [E|H]; [congruence | auto].
Qed.

Lemma wl_init_invariant : invariant (wl_init fn g).
Proof.
  intros u Hu. unfold wl_init. rewrite (assign_map _ pair_eqb pair_eqb_refl), map_map.
  set (F := fun p : N * nlab => idx pair_eqb _ (N.of_nat (length (nbrs g (fst p))), fn (snd p))).
  destruct (assoc_some_in u (gnodes g) Hu) as (a & Ea).
  destruct (assoc_some_in (s u) (gnodes g) (s_nodes u Hu)) as (a' & Ea').
  unfold col, node_ids. rewrite (assoc_combine_fst F _ _ _ Ea), (assoc_combine_fst F _ _ _ Ea').
  unfold F. simpl. f_equal. f_equal.
  - f_equal. rewrite (Permutation_length (nbrs_image u Hu)). apply map_length.
  - destruct Hs as (_ & _ & H3 & _). specialize (H3 u Hu). unfold lab_of, label in H3.
    rewrite Ea, Ea' in H3. simpl in H3. congruence.
Qed.

Theorem wl_invariant k : invariant (wl fn fe g k).
Proof. unfold wl. apply refine_invariant. apply wl_init_invariant. Qed.

End WL.

(** list form: a listed automorphism never maps a node to a node of another WL colour *)
Lemma wl_never_splits_listed fn fe g k m u v :
  wf g -> In m (auts fn fe g) -> In (u, v) m -> col (wl fn fe g k) v = col (wl fn fe g k) u.
Proof.
  intros Hwf Hm Hin. apply (auts_listing fn fe g (wf_simple g Hwf)) in Hm. destruct Hm as (s & Hs & ->).
  unfold aut_pairs in Hin. rewrite <- in_rev in Hin.
  apply in_map_iff in Hin. destruct Hin as (x & E & Hx). inversion E; subst.
  apply (wl_invariant fn fe g Hwf s Hs k u Hx).
Qed.
