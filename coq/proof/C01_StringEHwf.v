(** C01 — the explicit-hydrogen ITS is well formed *)
From Coq Require Import List NArith ZArith Bool Lia Arith.
From SK Require Import lib.LGraph lib.C01_GraphLemmas model.C01_Model model.C02_Model model.C01_String proof.C01_OptsProof proof.C01_Proof proof.C01_StringEH.
Import ListNotations.
Local Open Scope Z_scope.

(** invariant of the loop state *)
Definition hx_inv (st : hx_state) : Prop :=
  NoDup (map fst (st_nodes st)) /\
  (forall k, In k (map fst (st_nodes st)) -> (k <= st_max st)%N) /\
  simple (st_edges st) /\
  (forall a b x, In (a, b, x) (st_edges st) -> In a (map fst (st_nodes st)) /\ In b (map fst (st_nodes st)) /\ a <> b).

Lemma fresh_ids_nodup (mx : N) (k : nat) : NoDup (map (fun i => (mx + N.of_nat i)%N) (seq 1 k)).
Proof.
  assert (forall s, NoDup (map (fun i => (mx + N.of_nat i)%N) (seq s k))) as H; [|apply H].
  induction k as [|k IH]; intros s; cbn [seq map]; [constructor|]. constructor; [|apply IH].
  intros F. apply in_map_iff in F. destruct F as (j & E & Ij). apply in_seq in Ij. lia.
Qed.

Lemma fresh_ids_gt (mx : N) (k : nat) n' : In n' (map (fun i => (mx + N.of_nat i)%N) (seq 1 k)) -> (mx < n' <= mx + N.of_nat k)%N.
Proof. intros I. apply in_map_iff in I. destruct I as (i & <- & Ii). apply in_seq in Ii. lia. Qed.

Lemma star_simple (h : N) (x : iedge) (new : list N) : NoDup new -> ~ In h new ->
  simple (map (fun n' => (h, n', x)) new).
Proof.
  induction 1 as [|n' l Hn Hl IH]; intros Hh; cbn [map]; [constructor|]. constructor.
  - apply find_edge_none. intros y. split; intros F; apply in_map_iff in F; destruct F as (m & E & Im); inversion E; subst.
    + contradiction.
    + apply Hh. right. exact Im.
  - apply IH. intros F. apply Hh. right. exact F.
Qed.

Lemma hx_step_inv st h : hx_inv st -> hx_inv (hx_step st h).
Proof.
  destruct st as [[ns es] mx]. unfold hx_inv, st_nodes, st_edges, st_max. cbn [fst snd]. intros (Hn & Hle & Hs & He). unfold hx_step.
  destruct (assoc h ns) as [b|] eqn:Lh; [|cbn [fst snd]; auto].
  destruct (hx_count b <=? 0); [cbn [fst snd]; auto|]. cbn [fst snd].
  set (k := Z.to_nat (hx_count b)). set (new := map (fun i => (mx + N.of_nat i)%N) (seq 1 k)).
  assert (In h (map fst ns)) as Ih by (eapply assoc_some_key; eauto).
  assert (map fst (map (fun q : N * inode => if N.eqb (fst q) h then (fst q, hx_dec (snd q) (hx_count b)) else q) ns) = map fst ns) as Ek.
  { rewrite map_map. apply map_ext. intros [key a]. cbn [fst]. destruct (N.eqb key h); reflexivity. }
  assert (map fst (map (fun n' : N => (n', h_inode)) new) = new) as En by (rewrite map_map; cbn [fst]; apply map_id).
  assert (forall n', In n' new -> (mx < n' <= mx + N.of_nat k)%N) as Hnew by (intros n' I'; apply fresh_ids_gt; exact I').
  assert (~ In h new) as Hh by (intros F; apply Hnew in F; specialize (Hle h Ih); lia).
  rewrite map_app, Ek, En. split; [|split; [|split]].
  - apply NoDup_app_intro; [exact Hn|apply fresh_ids_nodup|]. intros x Ix F. apply Hnew in F. specialize (Hle x Ix). lia.
  - intros x Ix. apply in_app_iff in Ix. destruct Ix as [Ix|Ix]; [specialize (Hle x Ix); lia|apply Hnew in Ix; lia].
  - apply simple_app; [exact Hs|apply star_simple; [apply fresh_ids_nodup|exact Hh]|].
    intros a c x Ia. destruct (He a c x Ia) as (Ha & Hc & _). apply find_edge_none. intros y.
    split; intros F; apply in_map_iff in F; destruct F as (m & E & Im); inversion E; subst; apply Hnew in Im.
    + specialize (Hle c Hc). lia.
    + specialize (Hle a Ha). lia.
  - intros a c x Ia. apply in_app_iff in Ia. rewrite !in_app_iff. destruct Ia as [Ia|Ia].
    + destruct (He a c x Ia) as (Ha & Hc & Hac). auto.
    + apply in_map_iff in Ia. destruct Ia as (m & E & Im). inversion E; subst. split; [left; exact Ih|]. split; [right; exact Im|].
      intros ->. contradiction.
Qed.

Lemma hx_fold_inv l : forall st, hx_inv st -> hx_inv (fold_left hx_step l st).
Proof. induction l as [|h r IH]; intros st H; [exact H|]. cbn [fold_left]. apply IH. apply hx_step_inv. exact H. Qed.

Lemma hx_inv_init (I : its) : wf I -> hx_inv (gnodes I, gedges I, fold_left N.max (node_ids I) 0%N).
Proof.
  intros W. unfold hx_inv, st_nodes, st_edges, st_max. cbn [fst snd]. split; [apply W|]. split; [|split].
  - intros k Ik. apply fold_max_ge. left. exact Ik.
  - apply wf_simple. exact W.
  - intros a b x Ia. apply (wf_edge_nodes W Ia).
Qed.

(** C01_h_to_explicit_wf *)
Theorem h_to_explicit_its_wf (I : its) : wf I -> wf (fst (h_to_explicit_its I)).
Proof.
  intros W. unfold h_to_explicit_its.
  set (mx0 := fold_left N.max (node_ids I) 0%N).
  pose proof (hx_inv_init I W) as H0. fold mx0 in H0.
  pose proof (hx_fold_inv (node_ids I) _ H0) as H.
  destruct (fold_left hx_step (node_ids I) (gnodes I, gedges I, mx0)) as [[ns es] mx].
  unfold hx_inv, st_nodes, st_edges, st_max in H. cbn [fst snd] in *. destruct H as (Hn & _ & Hs & He).
  apply wf_intro; [exact Hn|exact He|exact Hs].
Qed.

Example C01_h_to_explicit_wf_nonvacuous :
  wf ex_eh /\ wf (fst (h_to_explicit_its ex_eh)) /\ length (gnodes (fst (h_to_explicit_its ex_eh))) = 6%nat.
Proof.
  destruct C01_h_to_explicit_its_nonvacuous as (W & _). split; [exact W|]. split; [apply h_to_explicit_its_wf; exact W|reflexivity].
Qed.
