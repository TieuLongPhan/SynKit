(** C08 — soundness of the signature: equal serialisations of two faithful canonical graphs make the inputs
    isomorphic on the covered attributes.  The digest enters as the premise "injective on the pair compared".
    [Section Renumbering]: the facts about isomorphisms and automorphisms that hold for any notion of "same graph"
    satisfying [renum_laws] (instances: [cov_laws] here, [dcov_laws] in C08_DSer.v). *)
From Coq Require Import List NArith ZArith Bool Arith Lia Permutation.
From SK Require Import lib.LGraph lib.StrJoin.
From SK Require Import model.C08_Model proof.C08_Spec proof.C08_Sort proof.C08_Faithful proof.C08_Cov proof.C08_SigFun
                       proof.C08_Render proof.C08_Nauty.
Import ListNotations.

Lemma relabel_compose f1 f2 (g : graph) : relabel f2 (relabel f1 g) = relabel (fun x => f2 (f1 x)) g.
Proof.
  unfold relabel. cbn [gnodes gedges]. rewrite !map_map. f_equal.
  apply map_ext. intros [[a b] x]. reflexivity.
Qed.
(* relabelling depends on the map only through its values on the nodes, as soon as every edge joins nodes *)
Lemma relabel_ext_ends f f' (g : graph) :
  (forall a b x, In (a, b, x) (gedges g) -> In a (node_ids g) /\ In b (node_ids g) /\ a <> b) ->
  (forall x, In x (node_ids g) -> f x = f' x) -> relabel f g = relabel f' g.
Proof.
  intros Hend H. unfold relabel. f_equal.
  - apply map_ext_in. intros [k a] I. cbn [fst snd]. rewrite H; auto.
    unfold node_ids. change k with (fst (k, a)). apply in_map. exact I.
  - apply map_ext_in. intros [[a b] x] I. destruct (Hend _ _ _ I) as (Ha & Hb & _). rewrite !H; auto.
Qed.
Lemma relabel_id (g : graph) : relabel (fun x => x) g = g.
Proof.
  destruct g as [ns es]. unfold relabel. cbn [gnodes gedges]. f_equal.
  - rewrite <- (map_id ns) at 2. apply map_ext. intros [k a]. reflexivity.
  - rewrite <- (map_id es) at 2. apply map_ext. intros [[a b] x]. reflexivity.
Qed.
Lemma relabel_id_on f (g : graph) : wf g -> (forall x, In x (node_ids g) -> f x = x) -> relabel f g = g.
Proof. intros Hg Hf. rewrite (relabel_ext_ends f (fun x => x) g (proj1 (proj2 Hg)) Hf). apply relabel_id. Qed.

(* a left inverse of a map that is injective on a node list *)
Definition inv_on (f : N -> N) (l : list N) (y : N) : N :=
  match find (fun x => N.eqb (f x) y) l with Some x => x | None => 0%N end.
Lemma inv_on_spec f l x : C08_Spec.inj_on f l -> In x l -> inv_on f l (f x) = x.
Proof.
  intros Hi Hx. unfold inv_on. destruct (find (fun x0 => N.eqb (f x0) (f x)) l) as [x0|] eqn:E.
  - apply find_some in E. destruct E as [I E]. apply N.eqb_eq in E. apply Hi; auto.
  - exfalso. pose proof (find_none _ _ E x Hx) as H. cbv beta in H. rewrite N.eqb_refl in H. discriminate.
Qed.

Lemma faithful_els_ok g cg : faithful g cg -> els_ok g -> els_ok cg.
Proof.
  intros (f & _ & Hp & _) H p I. apply (Permutation_in _ Hp) in I.
  unfold relabel in I. cbn [gnodes] in I. apply in_map_iff in I. destruct I as (q & <- & I). cbn [snd]. apply H. exact I.
Qed.

(* ---------------- renumberings up to a notion of "same graph" ---------------- *)
(* what the facts about isomorphisms and automorphisms use of "well formed" [W] and "same graph" [Q]: instantiated with
   wf / geq_cov here and with the directed versions in C08_DSer.v *)
Record renum_laws (W : graph -> Prop) (Q : graph -> graph -> Prop) : Prop := {
  renum_id : forall f g, W g -> (forall x, In x (node_ids g) -> f x = x) -> relabel f g = g;
  renum_refl : forall g, Q g g;
  renum_sym : forall g h, Q g h -> Q h g;
  renum_trans : forall g h k, Q g h -> Q h k -> Q g k;
  renum_relabel : forall f g h, Q g h -> Q (relabel f g) (relabel f h);
  renum_ids : forall g h, Q g h -> Permutation (node_ids g) (node_ids h) }.

Section Renumbering.
Variable W : graph -> Prop.
Variable Q : graph -> graph -> Prop.
Hypothesis laws : renum_laws W Q.
Let W_id := renum_id W Q laws.
Let Q_refl := renum_refl W Q laws.
Let Q_sym := renum_sym W Q laws.
Let Q_trans := renum_trans W Q laws.
Let Q_relabel := renum_relabel W Q laws.
Let Q_ids := renum_ids W Q laws.

Definition iso_by (g h : graph) : Prop := exists f, C08_Spec.inj_on f (node_ids g) /\ Q (relabel f g) h.
Definition aut_by (g : graph) (s : N -> N) : Prop := C08_Spec.inj_on s (node_ids g) /\ Q (relabel s g) g.

Lemma Q_image g h f x : Q (relabel f g) h -> In x (node_ids g) -> In (f x) (node_ids h).
Proof. intros Hq I. apply (Permutation_in _ (Q_ids _ _ Hq)). rewrite node_ids_relabel. apply in_map. exact I. Qed.

(* two renumberings with the same form: the map that carries one to the other *)
Lemma common_form_by g h f f' : W h -> C08_Spec.inj_on f (node_ids g) -> C08_Spec.inj_on f' (node_ids h) ->
  Q (relabel f g) (relabel f' h) ->
  C08_Spec.inj_on (fun x => inv_on f' (node_ids h) (f x)) (node_ids g) /\
  Q (relabel (fun x => inv_on f' (node_ids h) (f x)) g) h.
Proof.
  intros Hh Hi Hi' Hq. set (iv := inv_on f' (node_ids h)). split.
  - intros x y Hx Hy E.
    pose proof (Q_image _ _ _ x Hq Hx) as Ix. pose proof (Q_image _ _ _ y Hq Hy) as Iy.
    rewrite node_ids_relabel in Ix, Iy.
    apply in_map_iff in Ix, Iy. destruct Ix as (x' & Ex & Ix), Iy as (y' & Ey & Iy).
    rewrite <- Ex, <- Ey in E. unfold iv in E. rewrite !inv_on_spec in E by auto. subst y'.
    apply Hi; auto. congruence.
  - rewrite <- (relabel_compose f iv g).
    eapply Q_trans; [apply Q_relabel; exact Hq|].
    rewrite relabel_compose. rewrite W_id; [apply Q_refl|exact Hh|].
    intros x Hx. apply inv_on_spec; auto.
Qed.

Lemma aut_by_id g : W g -> aut_by g (fun x => x).
Proof. intros Hg. split; [intros x y _ _ E; exact E|]. rewrite (W_id (fun x => x) g Hg); [apply Q_refl|auto]. Qed.
Lemma iso_by_refl g : W g -> iso_by g g.
Proof. intros Hg. exists (fun x => x). apply aut_by_id. exact Hg. Qed.
Lemma iso_by_sym g h : W g -> W h -> iso_by g h -> iso_by h g.
Proof.
  intros Hg Hh (f & Hf & Hq). eexists. apply (common_form_by h g (fun x => x) f); auto.
  - intros x y _ _ E. exact E.
  - rewrite (W_id (fun x => x) h Hh); auto.
Qed.
Lemma iso_by_trans g h k : iso_by g h -> iso_by h k -> iso_by g k.
Proof.
  intros (f & Hf & Hq) (f' & Hf' & Hq'). exists (fun x => f' (f x)). split.
  - intros x y Hx Hy E. apply Hf; auto. apply Hf'; auto; eapply Q_image; eauto.
  - rewrite <- (relabel_compose f f' g). eapply Q_trans; [apply Q_relabel; exact Hq|exact Hq'].
Qed.

(* graphs are isomorphic exactly when isomorphic copies of them are *)
Lemma iso_by_twins g h cg ch : W g -> W h -> W cg -> W ch -> iso_by g cg -> iso_by h ch -> (iso_by cg ch <-> iso_by g h).
Proof.
  intros Hg Hh Wg Wh Ig Ih. split; intros Hi.
  - apply (iso_by_trans g cg h); [exact Ig|]. apply (iso_by_trans cg ch h); [exact Hi|]. apply iso_by_sym; auto.
  - apply (iso_by_trans cg g ch); [apply iso_by_sym; auto|]. apply (iso_by_trans g h ch); auto.
Qed.

Lemma aut_by_onto g s y : aut_by g s -> In y (node_ids g) -> exists x, In x (node_ids g) /\ s x = y.
Proof.
  intros [_ Hq] I. apply (Permutation_in _ (Permutation_sym (Q_ids _ _ Hq))) in I.
  rewrite node_ids_relabel in I. apply in_map_iff in I. destruct I as (x & E & I). exists x. auto.
Qed.
Lemma aut_by_comp g s t : aut_by g s -> aut_by g t -> aut_by g (fun x => t (s x)).
Proof.
  intros [Is Qs] [It Qt]. split.
  - intros x y Hx Hy E. apply Is; auto. apply It; auto; eapply Q_image; eauto.
  - rewrite <- (relabel_compose s t g). eapply Q_trans; [apply Q_relabel; exact Qs|exact Qt].
Qed.
Lemma aut_by_inv g s : W g -> aut_by g s ->
  aut_by g (inv_on s (node_ids g)) /\ forall x, In x (node_ids g) -> inv_on s (node_ids g) (s x) = x.
Proof.
  intros Hg Hs. pose proof Hs as [Hi Hq]. split; [split|].
  - intros y1 y2 I1 I2 E.
    destruct (aut_by_onto g s y1 Hs I1) as (x1 & J1 & <-). destruct (aut_by_onto g s y2 Hs I2) as (x2 & J2 & <-).
    rewrite !inv_on_spec in E by auto. subst. reflexivity.
  - apply Q_sym.
    pose proof (Q_relabel (inv_on s (node_ids g)) _ _ Hq) as H. rewrite relabel_compose in H.
    rewrite (W_id _ g Hg) in H; [exact H|]. intros x I. apply inv_on_spec; auto.
  - intros x I. apply inv_on_spec; auto.
Qed.
End Renumbering.

Lemma cov_laws : renum_laws (@wf nattr eattr) geq_cov.
Proof.
  split; [exact relabel_id_on|exact geq_cov_refl|exact geq_cov_sym|exact geq_cov_trans|exact relabel_geq_cov|exact geq_cov_ids].
Qed.

Lemma common_form_map g h f f' : wf h -> C08_Spec.inj_on f (node_ids g) -> C08_Spec.inj_on f' (node_ids h) ->
  geq_cov (relabel f g) (relabel f' h) ->
  C08_Spec.inj_on (fun x => inv_on f' (node_ids h) (f x)) (node_ids g) /\
  geq_cov (relabel (fun x => inv_on f' (node_ids h) (f x)) g) h.
Proof. exact (common_form_by _ _ cov_laws g h f f'). Qed.
Theorem common_form_iso g h f f' : wf g -> wf h -> C08_Spec.inj_on f (node_ids g) -> C08_Spec.inj_on f' (node_ids h) ->
  geq_cov (relabel f g) (relabel f' h) -> iso_cov g h.
Proof. intros _ Hh Hi Hi' Hq. eexists. apply (common_form_map g h f f'); auto. Qed.

Theorem sound_faithful g h cg ch : wf g -> wf h -> els_ok g -> els_ok h -> faithful g cg -> faithful h ch ->
  serialise cg = serialise ch -> iso_cov g h.
Proof.
  intros Hg Hh Eg Eh Fg Fh E.
  pose proof (serialise_inj cg ch (faithful_els_ok _ _ Fg Eg) (faithful_els_ok _ _ Fh Eh) E) as Hq.
  destruct (faithful_geq_cov _ _ Fg) as (f & Hi & H1). destruct (faithful_geq_cov _ _ Fh) as (f' & Hi' & H2).
  apply (common_form_iso g h f f'); auto.
  eapply geq_cov_trans; [apply geq_cov_sym; exact H1|]. eapply geq_cov_trans; [exact Hq|exact H2].
Qed.

(* the three back-ends; the digest premise: injective on the two strings compared *)
Theorem signature_sound_generic (D : Type) (digest : str -> D) g h : wf g -> wf h -> els_ok g -> els_ok h ->
  (digest (serialise (canon_generic g)) = digest (serialise (canon_generic h)) ->
   serialise (canon_generic g) = serialise (canon_generic h)) ->
  digest (serialise (canon_generic g)) = digest (serialise (canon_generic h)) -> iso_cov g h.
Proof.
  intros Hg Hh Eg Eh Hd E. apply (sound_faithful g h (canon_generic g) (canon_generic h)); auto.
  - apply faithful_generic. apply Hg.
  - apply faithful_generic. apply Hh.
Qed.
Theorem signature_sound_rank (D : Type) (digest : str -> D) r r' g h : wf g -> wf h -> els_ok g -> els_ok h ->
  (digest (serialise (canon_rank r g)) = digest (serialise (canon_rank r' h)) ->
   serialise (canon_rank r g) = serialise (canon_rank r' h)) ->
  digest (serialise (canon_rank r g)) = digest (serialise (canon_rank r' h)) -> iso_cov g h.
Proof.
  intros Hg Hh Eg Eh Hd E. apply (sound_faithful g h (canon_rank r g) (canon_rank r' h)); auto.
  - apply faithful_rank. apply Hg.
  - apply faithful_rank. apply Hh.
Qed.
Theorem signature_sound_nauty (D : Type) (digest : str -> D) g h : wf g -> wf h -> els_ok g -> els_ok h ->
  (digest (serialise (canon_nauty g)) = digest (serialise (canon_nauty h)) ->
   serialise (canon_nauty g) = serialise (canon_nauty h)) ->
  digest (serialise (canon_nauty g)) = digest (serialise (canon_nauty h)) -> iso_cov g h.
Proof.
  intros Hg Hh Eg Eh Hd E. apply (sound_faithful g h (canon_nauty g) (canon_nauty h)); auto.
  - apply faithful_nauty. apply Hg.
  - apply faithful_nauty. apply Hh.
Qed.

(* non-vacuity: a renumbered, re-inserted copy has the same nauty serialisation, and the premises hold *)
Definition so_g : graph :=
  LG [(7%N, NA [67%N] false 0 0 None); (3%N, NA [79%N] false 0 1 None); (5%N, NA [67%N] false 0 0 None)]
     [(7%N, 3%N, EA 2 None); (5%N, 3%N, EA 4 None)].
Definition so_h : graph :=
  LG [(1%N, NA [79%N] false 0 1 None); (2%N, NA [67%N] false 0 0 None); (9%N, NA [67%N] false 0 0 None)]
     [(1%N, 9%N, EA 4 None); (2%N, 1%N, EA 2 None)].
Example so_ex : serialise (canon_nauty so_g) = serialise (canon_nauty so_h) /\ els_ok so_g /\ els_ok so_h.
Proof.
  split; [vm_compute; reflexivity|]. split; apply els_okb_sound; reflexivity.
Qed.

Print Assumptions signature_sound_generic.
Print Assumptions signature_sound_rank.
Print Assumptions signature_sound_nauty.
