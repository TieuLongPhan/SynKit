(** C04 — non-vacuity of C04_explicit_h_total_criterion: the glued ITS of proton transfer O-H . N -> O- . H-N+ (C03's example
    [ex_T_h]: the oxygen gives one hydrogen, the nitrogen takes one, both carry pair id 1) is covered by ONE transfer, and
    _explicit_h indeed returns on it. *)
From Coq Require Import List NArith ZArith Bool Arith Lia.
From SK Require Import lib.Tok lib.LGraph model.C03_Model proof.C03_Proof proof.C03_Spec proof.C03_Examples proof.C04_Total.
Import ListNotations.
Local Open Scope Z_scope.

Definition ind (a : N) (v : Z) (n : N) : Z := if N.eqb n a then v else 0.
Lemma sumF_ind a v c : NoDup c -> sumF (ind a v) c = if mem a c then v else 0.
Proof.
  induction c as [|x r IH]; intros H; simpl; [reflexivity|]. inversion H as [|? ? Hx Hr]; subst. rewrite (IH Hr). unfold ind at 1.
  rewrite (N.eqb_sym a x). destruct (N.eqb_spec x a) as [->|Ne]; simpl.
  - destruct (mem a r) eqn:E; [apply mem_spec in E; contradiction|lia].
  - reflexivity.
Qed.
Lemma sumF_add (f g : N -> Z) c : sumF (fun n => f n + g n) c = sumF f c + sumF g c.
Proof. induction c as [|x r IH]; simpl; [reflexivity|]. rewrite IH. lia. Qed.

Definition ex_w (_ : unit) (n : N) : Z := ind 2%N 1 n + ind 3%N (-1) n.
Example criterion_example :
  (forall n, dl_of ex_T_h n = sumX (fun h => ex_w h n) [tt]) /\
  (forall h, In h [tt] -> exists pid, forall n, ex_w h n <> 0 -> exists A, In (n, A) (gnodes ex_T_h) /\ In pid (hp_of A)) /\
  (forall h c, In h [tt] -> NoDup c -> (forall n, ex_w h n <> 0 -> In n c) -> sumF (ex_w h) c <= 0) /\
  explicit_h ex_T_h <> None.
Proof.
  assert (EG : gnodes ex_T_h = [(1%N, IN (NA 67%N false 3 0 []) (NA 67%N false 3 0 []) 0 None);
                                (2%N, IN (NA 79%N false 1 0 []) (NA 79%N false 0 (-1) []) 0 (Some [1%N]));
                                (3%N, IN (NA 78%N false 3 0 []) (NA 78%N false 4 1 []) 0 (Some [1%N]))]) by (vm_compute; reflexivity).
  assert (H1 : forall n, dl_of ex_T_h n = sumX (fun h => ex_w h n) [tt]).
  { intros n.
    destruct (N.eqb_spec n 1) as [E1|N1]; [subst n; vm_compute; reflexivity|].
    destruct (N.eqb_spec n 2) as [E2|N2]; [subst n; vm_compute; reflexivity|].
    destruct (N.eqb_spec n 3) as [E3|N3]; [subst n; vm_compute; reflexivity|].
    apply N.eqb_neq in N1, N2, N3.
    unfold dl_of, label. rewrite EG. cbn [assoc]. rewrite N1, N2, N3. unfold sumX, ex_w, ind. cbn [fold_right]. rewrite N2, N3. reflexivity. }
  assert (H2 : forall h, In h [tt] -> exists pid, forall n, ex_w h n <> 0 -> exists A, In (n, A) (gnodes ex_T_h) /\ In pid (hp_of A)).
  { intros h _. exists 1%N. intros n Hn. rewrite EG. unfold ex_w, ind in Hn.
    destruct (N.eqb n 2) eqn:E2.
    - apply N.eqb_eq in E2. subst n. eexists. split; [right; left; reflexivity|left; reflexivity].
    - destruct (N.eqb n 3) eqn:E3; [|exfalso; apply Hn; reflexivity].
      apply N.eqb_eq in E3. subst n. eexists. split; [right; right; left; reflexivity|left; reflexivity]. }
  assert (H3 : forall h c, In h [tt] -> NoDup c -> (forall n, ex_w h n <> 0 -> In n c) -> sumF (ex_w h) c <= 0).
  { intros h c _ Hc Hin. unfold ex_w. rewrite sumF_add, !(sumF_ind _ _ c Hc).
    assert (I2 : mem 2%N c = true) by (apply mem_spec; apply Hin; unfold ex_w, ind; simpl; lia).
    assert (I3 : mem 3%N c = true) by (apply mem_spec; apply Hin; unfold ex_w, ind; simpl; lia).
    rewrite I2, I3. lia. }
  split; [exact H1|]. split; [exact H2|]. split; [exact H3|].
  exact (explicit_h_total ex_T_h unit [tt] ex_w H1 H2 H3).
Qed.

(** C04_identity_default_end_total: on bromoethane + water written with explicit centre hydrogens (dG / dH) the boolean holds for
    both templates and both directions (each migrating hydrogen has one bond before and one after); it fails for a template in
    which a hydrogen has a bond on the reactant side only *)
From SK Require Import model.C04_Model model.C04_Reactor proof.C04_Examples proof.C04_TotalDefault.
Example valence_example :
  forallb (fun ci : bool * bool => own_valence_okb (fst ci) (snd ci) dG dH) [(true, false); (false, false); (true, true); (false, true)] = true.
Proof. vm_compute. reflexivity. Qed.
Definition v_tpl : its :=
  LG [(1%N, IN (NA 79%N false 0 0 []) (NA 79%N false 0 0 []) 0 None); (2%N, IN (NA 72%N false 0 0 []) (NA 72%N false 0 0 []) 0 None);
      (3%N, IN (NA 78%N false 0 0 []) (NA 78%N false 0 0 []) 0 None)]
     [(1%N, 2%N, (2, 2, 0)); (2%N, 3%N, (2, 0, 2))].
Example valence_counterexample :
  match synrule v_tpl true with Some (rc, _, _) => valence_okb v_tpl rc | None => true end = false.
Proof. vm_compute. reflexivity. Qed.

(** C04_in_results_engine_default (no premise about _explicit_h): on dG / dH, all four template / direction combinations, the
    boolean hypotheses hold (valence_example, default_chain_example in proof/C04_ObjectExamples.v) and the reactor's its_list
    contains the folded reaction; C04_any_match_explicit_h_total: _explicit_h returns on EVERY ITS the reactor glues there *)
From SK Require Import lib.Mono model.C06_Model.
Example default_total_example :
  forallb (fun ci : bool * bool =>
    match rule_of (fst ci) (snd ci) dG dH with
    | Some (rc, l, r) =>
        let host := substrate (snd ci) dG dH in
        match compute_mappings (api_engine (monos_on (tr_host host) (tr_pat l))) (own_opts (snd ci) true (SMember 0%N) None false) host (rc, l, r) with
        | Some ms => negb (Nat.eqb (length ms) 0)
                     && forallb (fun y => match glue host rc y with
                                          | Some T => match explicit_h T with Some _ => true | None => false end
                                          | None => true end) ms
        | None => false
        end
    | None => false
    end) [(true, false); (false, false); (true, true); (false, true)] = true.
Proof. vm_compute. reflexivity. Qed.

(** C04_own_{comp,bt}_{implicit,default}_object: on dG / dH (default mode) the reactor under comp and bt returns an its_list
    with the folded reaction, all four template / direction combinations (the identity separates: own_default_comp_bt_hyps) *)
Example default_compbt_object_example :
  forallb (fun sci : N * (bool * bool) =>
    let s := fst sci in let core := fst (snd sci) in let inv := snd (snd sci) in
    match rule_of core inv dG dH with
    | Some (rc, l, r) =>
        let host := substrate inv dG dH in
        match read_its (api_engine (monos_on (tr_host host) (tr_pat l))) (fun _ _ _ => []) (own_opts inv true (SMember s) (Some 100%N) false) host (rc, l, r) C04_Reactor.fresh with
        | (Some gs, _) => existsb (fun T' => regen_folded T' (if inv then dH else dG) (if inv then dG else dH)) gs
        | _ => false end
    | None => false
    end) [(1%N, (true, false)); (2%N, (true, false)); (1%N, (false, true)); (2%N, (false, true)); (1%N, (true, true)); (2%N, (false, false))] = true.
Proof. vm_compute. reflexivity. Qed.

(** C04_explicit_h_any_order_keeps_reaction / C04_any_match_explicit_h_total_any_order: the REVERSED listing is an admissible
    visiting order; with it _explicit_h also returns on the glued ITS of dG / dH and the result folds to the reaction *)
From SK Require Import model.C03_Order proof.C04_ObjectExamples.
Example any_order_example :
  (forall (l : list N) x, In x (rev l) <-> In x l) /\ (forall l : list N, NoDup l -> NoDup (rev l)) /\
  forallb (fun ci : bool * bool =>
    match d_glued (fst ci) (snd ci) with
    | Some T => match explicit_h_ord (@rev N) T with
                | Some (T', _) => regen_folded T' (if snd ci then dH else dG) (if snd ci then dG else dH)
                | None => false end
    | None => false end) [(true, false); (false, false); (true, true); (false, true)] = true.
Proof.
  split; [intros l x; symmetry; apply in_rev|]. split; [intros l H; apply NoDup_rev; exact H|]. vm_compute. reflexivity.
Qed.

(** C04_own_*_object / C04_{comp,bt}_regenerates_at: the explicit threshold bound is tiny on the examples (C06's comp_bound and the
    number of exhaustive matches against the default 5000) *)
From SK Require Import proof.C06_Comp.
Example bound_example :
  (N.max (comp_bound (monos_on (tr_host rG_) (tr_pat r_l)) true (tr_host rG_) (tr_pat r_l))
         (lenN (monos_on (tr_host rG_) (tr_pat r_l) (node_ids (tr_host rG_)) (node_ids (tr_pat r_l)))) <=? dflt DEFAULT_THRESHOLD None)%N = true /\
  forallb (fun ci : bool * bool =>
    match rule_of (fst ci) (snd ci) dG dH with
    | Some (rc, l, r) =>
        let Hh := tr_host (substrate (snd ci) dG dH) in let Pp := tr_pat l in
        (N.max (comp_bound (monos_on Hh Pp) true Hh Pp) (lenN (monos_on Hh Pp (node_ids Hh) (node_ids Pp))) <=? dflt DEFAULT_THRESHOLD None)%N
    | None => false end) [(true, false); (false, false); (true, true); (false, true)] = true.
Proof. vm_compute. split; reflexivity. Qed.
