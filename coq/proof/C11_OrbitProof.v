(** C11 (round 5) — orbit.py (model/C11_Orbit.v): what OrbitAccuracy reports for an approximate partition A and an exact
    partition E of the same node set when E consists of the classes of a relation R and A is closed under R (the WL-1
    estimate against the exact analysis: C11_Extend.orbit_accuracy_all).  Then: the class accepts the two lists; every
    exact orbit lies wholly inside one estimated class (a confusion entry is 0 or the size of the exact orbit); two nodes
    with the same exact index have the same approximate index (the only pairwise errors are merges); if the estimate
    merges nothing that the truth separates, the pairwise accuracy is 1.  Stdlib lists. *)
From Coq Require Import List ZArith Lia.
From SK Require Import lib.Tok lib.LGraph model.C11_Model model.C11_Orbit proof.C11_Aut.
Import ListNotations.

(** ---------- the shared-evaluation observable is the composed one ---------- *)
Lemma analyze_comps fn fe (g : graph) : a_comps (analyze fn fe g) = components g.
Proof.
  unfold analyze. destruct (node_ids g); [reflexivity|].
  destruct (length (components g) <=? 1)%nat; [|reflexivity].
  destruct (analyze_component fn fe g). reflexivity.
Qed.

Lemma run_aut_all_eq (g : graph) :
  run_aut_all g = L [ run_aut g; tbool (wfb g); tlist t_maps (aut_lists g); run_aut_oa g ].
Proof. unfold run_aut_all, run_aut, aut_lists, run_aut_oa. cbv zeta. rewrite analyze_comps. reflexivity. Qed.

(** ---------- _build_mappings: the index of the last member containing the node ---------- *)
Lemma host_index_none h os : forall i f, host_index h os i f = None -> f = None /\ forall o, In o os -> ~ In h o.
Proof.
  induction os as [|o r IH]; simpl; intros i f H; [split; [exact H | intros ? []]|].
  apply IH in H. destruct H as [Hf Hr]. destruct (LGraph.mem h o) eqn:E; [discriminate|].
  split; [exact Hf|]. intros o' [<-|Ho']; [|exact (Hr o' Ho')].
  intros Hin. apply LGraph.mem_spec in Hin. congruence.
Qed.

Lemma host_index_some h os : forall i f j, host_index h os i f = Some j ->
  f = Some j \/ ((i <= j)%N /\ (N.to_nat (j - i) < length os)%nat /\ In h (nth (N.to_nat (j - i)) os [])).
Proof.
  induction os as [|o r IH]; simpl; intros i f j H; [left; exact H|].
  apply IH in H. destruct H as [H|(H1 & H2 & H3)].
  - destruct (LGraph.mem h o) eqn:E; [|left; exact H]. inversion H; subst j. right.
    replace (N.to_nat (i - i)) with 0%nat by lia. split; [lia | split; [lia|]]. apply LGraph.mem_spec. exact E.
  - right. replace (N.to_nat (j - i)) with (S (N.to_nat (j - N.succ i))) by lia. split; [lia | split; [lia | exact H3]].
Qed.

Lemma host_index_ext h h' os : (forall o, In o os -> LGraph.mem h o = LGraph.mem h' o) ->
  forall i f, host_index h os i f = host_index h' os i f.
Proof.
  induction os as [|o r IH]; simpl; intros H i f; [reflexivity|].
  rewrite (H o (or_introl eq_refl)). apply IH. intros o' Ho'. apply H. right. exact Ho'.
Qed.

Lemma node_to_member P u j : node_to P u = Some j -> In (nth (N.to_nat j) P []) P /\ In u (nth (N.to_nat j) P []).
Proof.
  unfold node_to. intros H. apply host_index_some in H. destruct H as [H|(H1 & H2 & H3)]; [discriminate|].
  rewrite N.sub_0_r in H2, H3. split; [apply nth_In; exact H2 | exact H3].
Qed.

Lemma node_to_covered P u : (exists o, In o P /\ In u o) -> exists j, node_to P u = Some j.
Proof.
  intros (o & Ho & Hu). destruct (node_to P u) as [j|] eqn:E; [exists j; reflexivity|].
  unfold node_to in E. apply host_index_none in E. destruct E as [_ E]. exfalso. exact (E o Ho Hu).
Qed.

(** ---------- generic list facts ---------- *)
Lemma filter_ssorted (f : N -> bool) l : ssorted l -> ssorted (filter f l).
Proof.
  induction l as [|x r IH]; simpl; [tauto|]. intros [Hx Hr]. destruct (f x); simpl; [|exact (IH Hr)].
  split; [|exact (IH Hr)]. intros y Hy. apply filter_In in Hy. apply Hx. tauto.
Qed.

Lemma pairs_count_all (f : N -> N -> bool) l :
  (forall x y, In x l -> In y l -> f x y = true) -> pairs_count f l = pairs_count (fun _ _ => true) l.
Proof.
  induction l as [|x r IH]; simpl; intros H; [reflexivity|].
  rewrite (filter_all (f x) r), (filter_all (fun _ => true) r), IH; [reflexivity | | |].
  - intros a b Ha Hb. apply H; right; assumption.
  - reflexivity.
  - intros y Hy. apply H; [left; reflexivity | right; exact Hy].
Qed.

(** ---------- the abstract situation: E exact for a relation R, A closed under R, same cover ---------- *)
Section Coarser.
Variable R : N -> N -> Prop.
Variable ns : list N.
Variables A E : partition.
Hypothesis R_sym : forall u v, R u v -> R v u.
Hypothesis E_exact : forall e u v, In e E -> In u e -> (In v e <-> R u v).
Hypothesis A_closed : forall a u v, In a A -> In u a -> R u v -> In v a.
Hypothesis A_cover : forall u, In u ns <-> exists a, In a A /\ In u a.
Hypothesis E_cover : forall u, In u ns <-> exists e, In e E /\ In u e.

Lemma all_nodes_in P u : In u (all_nodes P) <-> exists o, In o P /\ In u o.
Proof.
  unfold all_nodes. rewrite canonN_in, in_concat. split; intros (o & H1 & H2); exists o; tauto.
Qed.

Lemma coarser_valid : oa_valid A E = true.
Proof.
  unfold oa_valid. apply leqb_eq. apply ssorted_ext; try apply canonN_ssorted.
  intros y. change (In y (all_nodes A) <-> In y (all_nodes E)). rewrite !all_nodes_in, <- A_cover, <- E_cover. tauto.
Qed.

Lemma coarser_confusion a e : In a A -> In e E ->
  inter_size a e = 0%N \/ inter_size a e = N.of_nat (length (canonN e)).
Proof.
  intros Ha He. unfold inter_size.
  destruct (filter (fun x => LGraph.mem x e) (canonN a)) as [|x r] eqn:F; [left; reflexivity|]. right.
  assert (Hx : In x (filter (fun x => LGraph.mem x e) (canonN a))) by (rewrite F; left; reflexivity).
  apply filter_In in Hx. destruct Hx as [Hxa Hxe]. apply (proj1 (canonN_in a x)) in Hxa. apply (proj1 (LGraph.mem_spec x e)) in Hxe.
  rewrite <- F. f_equal. f_equal.
  apply ssorted_ext; [apply filter_ssorted, canonN_ssorted | apply canonN_ssorted|].
  intros y. rewrite filter_In, !canonN_in, LGraph.mem_spec. split; [tauto|].
  intros Hy. split; [|exact Hy]. apply (A_closed a x y Ha Hxa). apply (E_exact e x y He Hxe). exact Hy.
Qed.

Lemma coarser_same u v : In u ns -> same_in E u v = true -> same_in A u v = true.
Proof.
  intros Hu H. unfold same_in in *. apply oeqb_eq in H.
  destruct (node_to_covered E u (proj1 (E_cover u) Hu)) as (j & Ej). rewrite Ej in H. symmetry in H.
  destruct (node_to_member E u j Ej) as [He Hue]. destruct (node_to_member E v j H) as [_ Hve].
  assert (Ruv : R u v) by (apply (E_exact _ u v He Hue); exact Hve).
  apply oeqb_eq. unfold node_to. apply host_index_ext. intros a Ha.
  destruct (mem_reflect u a) as [Mu|Mu], (mem_reflect v a) as [Mv|Mv]; try reflexivity; exfalso.
  - exact (Mv (A_closed a u v Ha Mu Ruv)).
  - exact (Mu (A_closed a v u Ha Mv (R_sym u v Ruv))).
Qed.

Lemma coarser_perfect :
  (forall u v, In u ns -> In v ns -> same_in A u v = true -> same_in E u v = true) ->
  fst (oa_pairwise A E) = snd (oa_pairwise A E).
Proof.
  intros H. unfold oa_pairwise. destruct (length (all_nodes A) <? 2)%nat; [reflexivity|]. simpl.
  apply pairs_count_all. intros x y Hx Hy.
  assert (Hxn : In x ns) by (apply A_cover, all_nodes_in; exact Hx).
  assert (Hyn : In y ns) by (apply A_cover, all_nodes_in; exact Hy).
  destruct (same_in A x y) eqn:SA.
  - rewrite (H x y Hxn Hyn SA). reflexivity.
  - destruct (same_in E x y) eqn:SE; [|reflexivity]. rewrite (coarser_same x y Hxn SE) in SA. discriminate.
Qed.
End Coarser.

(** ---------- non-vacuity ---------- *)
(** the path C-C-C: estimate = truth = {2}, {1,3}: accepted, confusion diagonal, all metrics 1; then a strictly coarser
    approximation and two lists over different node sets *)
Definition ex_p3 : graph :=
  LG [(1%N, (0%N, 0%N, 0%N)); (2%N, (0%N, 0%N, 0%N)); (3%N, (0%N, 0%N, 0%N))]
     [(1%N, 2%N, (0%N, 0%N)); (2%N, 3%N, (0%N, 0%N))].
Example ex_orbit_accuracy :
  wfb ex_p3 = true /\ (length (components ex_p3) <= 1)%nat /\
  run_orbit_accuracy (wl_orbits (wl n_exact e_order ex_p3 10)) (a_orbits (analyze n_exact e_order ex_p3)) =
    L [ I 0%Z; L [I 3%Z; I 3%Z]; L [ L [ L [I 0%Z; I 1%Z] ]; L [ L [I 1%Z; I 2%Z] ] ]; L [I 3%Z; I 3%Z]; L [I 3%Z; I 3%Z] ] /\
  (* a strictly coarser approximation: one class for everything - purity 2/3, one of three pairs right *)
  run_orbit_accuracy [[1; 2; 3]%N] [[2]; [1; 3]]%N =
    L [ I 0%Z; L [I 0%Z; I 3%Z]; L [ L [ L [I 0%Z; I 1%Z]; L [I 1%Z; I 2%Z] ] ]; L [I 2%Z; I 3%Z]; L [I 1%Z; I 3%Z] ] /\
  (* different node sets: ValueError *)
  run_orbit_accuracy [[1; 2]%N] [[1]; [3]]%N = L [ I 1%Z ].
Proof. vm_compute. repeat split; lia. Qed.
