(** C13 -- the partition theorem stated on the graphs THE CALLER PASSES (raw attribute dictionaries) with the configured label
    names, defaults and edge attribute: two items share a class iff some bijection of their atoms preserves the configured
    labels after the defaults (generic_node_match) and presence + configured attribute of every bond (generic_edge_match with
    default 1).  Corollary of [partition_graphs], [isomorphic_meaning] and the projection lemmas of proof/C13_Trace.v. *)
From Coq Require Import List ZArith Bool Permutation.
From SK Require Import lib.LGraph model.C13_Model model.C13_Trace proof.C13_Proof proof.C13_Iso proof.C13_Templates proof.C13_Trace.
Import ListNotations.
Local Open Scope nat_scope.

Definition raw_isomorphic (c : ccfg) (g1 g2 : rgraph13) : Prop :=
  length (gnodes g1) = length (gnodes g2) /\
  exists f : N -> N,
    NoDup (map f (node_ids g2)) /\ incl (map f (node_ids g2)) (node_ids g1) /\
    (forall u, In u (node_ids g2) ->
       match label g1 (f u), label g2 u with
       | Some a, Some b => node_match_raw13 (cc_names c) (cc_defs c) a b = true
       | _, _ => False
       end) /\
    (forall u v, In u (node_ids g2) -> In v (node_ids g2) -> u <> v ->
       match LGraph.adj g2 u v, LGraph.adj g1 (f u) (f v) with
       | Some b, Some b' => edge_match_raw13 (cc_edge c) b' b = true
       | None, None => True
       | _, _ => False
       end).

Lemma project13_node c (g1 g2 : rgraph13) u v : length (cc_defs c) = length (cc_names c) ->
  node_match true (cc_defs c) (label (project13 c g1) u) (label (project13 c g2) v) = true <->
  match label g1 u, label g2 v with
  | Some a, Some b => node_match_raw13 (cc_names c) (cc_defs c) a b = true
  | _, _ => False
  end.
Proof.
  intros EL. rewrite (proj1 (project13_matchers c g1 g2 u v u v EL)).
  destruct (label g1 u), (label g2 v); try reflexivity; split; (discriminate || contradiction).
Qed.

Lemma project13_isomorphic c g1 g2 : length (cc_defs c) = length (cc_names c) ->
  isomorphic true (cc_defs c) (project13 c g1) (project13 c g2) <-> raw_isomorphic c g1 g2.
Proof.
  intros EL. rewrite isomorphic_meaning. unfold raw_isomorphic, project13 at 1 2. cbn [gnodes].
  rewrite !map_length, !project13_ids. apply and_iff_compat_l.
  split; intros (f & A & B & C & D); exists f; (split; [exact A|]); (split; [exact B|]); split.
  - intros u Hu. now apply (project13_node c g1 g2 _ _ EL), C.
  - intros u v Hu Hv Hne. specialize (D u v Hu Hv Hne). rewrite !project13_adj in D.
    now destruct (LGraph.adj g2 u v), (LGraph.adj g1 (f u) (f v)).
  - intros u Hu. now apply (project13_node c g1 g2 _ _ EL), C.
  - intros u v Hu Hv Hne. specialize (D u v Hu Hv Hne). rewrite !project13_adj.
    now destruct (LGraph.adj g2 u v), (LGraph.adj g1 (f u) (f v)).
Qed.

Lemma mk_item_wf c r : length (cc_defs c) = length (cc_names c) -> NoDup (node_ids (ri_graph r)) ->
  wf_item (cc_defs c) (mk_item c r).
Proof.
  intros EL Hnd. split; [simpl; now rewrite project13_ids|].
  intros u a Hin. simpl in Hin. apply in_map_iff in Hin. destruct Hin as ([u' a'] & [= _ <-] & _).
  rewrite map_length, EL. apply le_n.
Qed.

Lemma raw_iso c r r' : length (cc_defs c) = length (cc_names c) -> NoDup (node_ids (ri_graph r')) ->
  item_iso true (cc_defs c) (mk_item c r) (mk_item c r') = true <-> raw_isomorphic c (ri_graph r) (ri_graph r').
Proof.
  intros EL Hnd. unfold item_iso. simpl. rewrite <- (project13_isomorphic c _ _ EL).
  apply graph_iso_spec. now rewrite project13_ids.
Qed.

(** the premises of the generic theorems, on the selected items of a pool of raw items with distinct node ids whose
    pre-grouping attribute is invariant *)
Section RawDomain.
Variables (c : ccfg) (mode : attr_mode) (pool : list ritem).
Hypothesis EL : length (cc_defs c) = length (cc_names c).
Hypothesis Hnd : forall x, In x pool -> NoDup (node_ids (ri_graph x)).
Hypothesis Hattr : forall x y, In x pool -> In y pool -> raw_isomorphic c (ri_graph x) (ri_graph y) ->
                               gc_key mode (mk_item c x) = gc_key mode (mk_item c y).
Notation iso := (item_iso true (cc_defs c)).

Definition rawD (x : item) : Prop := exists r, In r pool /\ x = mk_item c r.

Lemma rawD_wf x : rawD x -> wf_item (cc_defs c) x.
Proof. intros (r & Hr & ->). apply mk_item_wf; auto. Qed.

Lemma rawD_refl x : rawD x -> iso x x = true.
Proof. intros Dx. apply item_iso_refl, rawD_wf, Dx. Qed.

Lemma rawD_sym x y : rawD x -> rawD y -> iso x y = true -> iso y x = true.
Proof. intros Dx Dy. apply item_iso_sym; now apply rawD_wf. Qed.

Lemma rawD_trans x y z : rawD x -> rawD y -> rawD z -> iso x y = true -> iso y z = true -> iso x z = true.
Proof. intros Dx Dy Dz. apply item_iso_trans; now apply rawD_wf. Qed.

Lemma rawD_inv x y : rawD x -> rawD y -> iso x y = true -> gc_key mode x = gc_key mode y.
Proof. intros (r & Hr & ->) (r' & Hr' & ->) E. apply Hattr; auto. apply (raw_iso c r r' EL); auto. Qed.

Lemma rawD_items l : incl l pool -> Forall rawD (map (mk_item c) l).
Proof. intros Hl. apply Forall_forall. intros x Hx. apply in_map_iff in Hx. destruct Hx as (r & <- & Hr). exists r. auto. Qed.

End RawDomain.

(** GraphCluster.fit on raw items: every item gets exactly one class, and two items share a class IFF their raw graphs are
    isomorphic on the configured labels and bond attribute -- provided the pre-grouping attribute (if any) is invariant *)
Theorem partition_raw (c : ccfg) (mode : attr_mode) (data : list ritem) :
  length (cc_defs c) = length (cc_names c) ->
  (forall x, In x data -> NoDup (node_ids (ri_graph x))) ->
  (forall x y, In x data -> In y data -> raw_isomorphic c (ri_graph x) (ri_graph y) ->
               gc_key mode (mk_item c x) = gc_key mode (mk_item c y)) ->
  let items := map (mk_item c) data in
  let classes := gc_fit (item_iso true (cc_defs c)) mode items in
  length classes = length data /\
  forall i j x y, nth_error data i = Some x -> nth_error data j = Some y ->
  exists ci cj, nth_error classes i = Some (Some ci) /\ nth_error classes j = Some (Some cj) /\
                (ci = cj <-> raw_isomorphic c (ri_graph x) (ri_graph y)).
Proof.
  intros EL Hnd Hattr items classes.
  destruct (partition_full (item_iso true (cc_defs c)) mode (rawD c data) (rawD_refl c data EL Hnd) (rawD_sym c data EL Hnd)
              (rawD_trans c data EL Hnd) (rawD_inv c mode data EL Hnd Hattr) items (rawD_items c data data (incl_refl _)))
    as (Hlen & Hall).
  split; [fold classes in Hlen; rewrite Hlen; apply map_length|].
  intros i j x y Hx Hy.
  destruct (Hall i j _ _ (map_nth_error (mk_item c) _ _ Hx) (map_nth_error (mk_item c) _ _ Hy)) as (ci & cj & Ei & Ej & _ & _ & Hiff).
  exists ci, cj. split; [exact Ei|split; [exact Ej|]]. rewrite Hiff. apply raw_iso; [exact EL|].
  eapply Hnd, nth_error_In, Hy.
Qed.

(** the incremental clause end to end on the caller's graphs: a NEW raw item classified against the templates an earlier fit
    (any batch size, any in-range sampler choices) returned gets the class of exactly the earlier items its raw graph is
    isomorphic to; isomorphic to none of them, it gets a class number no earlier item has and becomes that class's representative *)
Theorem incremental_raw (c : ccfg) (mode : attr_mode) (data : list ritem) (bs : option nat) (picks : list nat) (y : ritem) :
  length (cc_defs c) = length (cc_names c) ->
  (forall x, In x (y :: data) -> NoDup (node_ids (ri_graph x))) ->
  (forall x x', In x (y :: data) -> In x' (y :: data) -> raw_isomorphic c (ri_graph x) (ri_graph x') ->
                gc_key mode (mk_item c x) = gc_key mode (mk_item c x')) ->
  match bs with None => True | Some b => 1 <= b end ->
  let iso := item_iso true (cc_defs c) in
  let items := map (mk_item c) data in
  Forall2 (fun k p => p < length (members items (map class_z (gc_fit iso mode items)) k))
          (first_keys [] (map class_z (gc_fit iso mode items))) picks ->
  let cs := fst (fit iso mode items [] bs picks) in
  let ts := snd (fit iso mode items [] bs picks) in
  let cl := fst (lib_check iso mode (mk_item c y) ts) in
  (forall i x, nth_error data i = Some x ->
     (nth_error cs i = Some cl <-> raw_isomorphic c (ri_graph x) (ri_graph y))) /\
  ((forall x, In x data -> ~ raw_isomorphic c (ri_graph x) (ri_graph y)) ->
   ~ In cl cs /\ snd (lib_check iso mode (mk_item c y) ts) = ts ++ [(mk_item c y, cl)]).
Proof.
  intros EL Hnd Hattr Hbs iso items Hp cs ts cl.
  destruct (fit_then_lib_check iso mode (rawD c (y :: data)) (rawD_refl c _ EL Hnd) (rawD_sym c _ EL Hnd) (rawD_trans c _ EL Hnd)
              (rawD_inv c mode _ EL Hnd Hattr) items bs picks (mk_item c y)
              (rawD_items c (y :: data) data (incl_tl y (incl_refl _))) Hbs Hp (ex_intro _ y (conj (or_introl eq_refl) eq_refl)))
    as (H1 & H2).
  fold cs ts in H1, H2. fold cl in H1, H2.
  assert (Ny : NoDup (node_ids (ri_graph y))) by (apply Hnd; now left).
  split.
  - intros i x Hx. rewrite (H1 i _ (map_nth_error (mk_item c) _ _ Hx)). now apply raw_iso.
  - intros Hnone. apply H2. intros x Hx. apply in_map_iff in Hx. destruct Hx as (r & <- & Hr).
    apply not_true_is_false. intros E. apply (Hnone r Hr). now apply (raw_iso c r y EL Ny).
Qed.

Lemma raw_premises_perm (c : ccfg) (mode : attr_mode) (data data' : list ritem) : Permutation data data' ->
  (forall x, In x data -> NoDup (node_ids (ri_graph x))) ->
  (forall x y, In x data -> In y data -> raw_isomorphic c (ri_graph x) (ri_graph y) ->
               gc_key mode (mk_item c x) = gc_key mode (mk_item c y)) ->
  (forall x, In x data' -> NoDup (node_ids (ri_graph x))) /\
  (forall x y, In x data' -> In y data' -> raw_isomorphic c (ri_graph x) (ri_graph y) ->
               gc_key mode (mk_item c x) = gc_key mode (mk_item c y)).
Proof.
  intros P Hnd Hattr. apply Permutation_sym in P. split.
  - intros x Hx. apply Hnd. exact (Permutation_in _ P Hx).
  - intros x y Hx Hy. apply Hattr; eapply Permutation_in; eassumption.
Qed.

Module Example_raw13.
(** keys: 0 element, 1 charge, 2 atom_map; C(+0, map 5) - O against O - C(map 9) relabelled, against C - N *)
Definition cfg : ccfg := {| cc_names := [0; 1]%N; cc_defs := [0; 9]%N; cc_edge := 0%N |}.
Definition r1 : ritem := MkRItem 0 [] (LG [(1, [(0, 1); (1, 9); (2, 5)]); (2, [(0, 2)])]%N [(1%N, 2%N, [(0%N, [2%Z])])]).
Definition r2 : ritem := MkRItem 1 [] (LG [(7, [(0, 2); (2, 9)]); (8, [(0, 1)])]%N [(7%N, 8%N, [(0%N, [2%Z]); (1%N, [0%Z])])]).
Definition r3 : ritem := MkRItem 2 [] (LG [(1, [(0, 1)]); (2, [(0, 3)])]%N [(1%N, 2%N, [(0%N, [2%Z])])]).
Example raw_classes : gc_fit (item_iso true (cc_defs cfg)) ANone (map (mk_item cfg) [r1; r2; r3]) = [Some 0; Some 0; Some 1].
Proof. vm_compute. reflexivity. Qed.
End Example_raw13.
