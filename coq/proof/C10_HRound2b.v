(** C10 — proofs: on molecule graphs with bare hydrogens (H2, H+, lone H) explicit-then-implicit hands RDKit the
    same molecule ([h_roundtrip_bare_molecule] of proof/C10_G2MExt.v): the witness. *)
From Coq Require Import List NArith ZArith Bool Lia.
From SK Require Import lib.LGraph lib.StrJoin model.C10_Model model.C10_Rxn proof.C10_Views proof.C10_Build proof.C10_Copy
  proof.C10_MolGraph proof.C10_Hydrogen proof.C10_HRound proof.C10_HRoundIts proof.C10_G2MSpec proof.C10_G2MExt proof.C10_HRound2.
Import ListNotations.
Local Open Scope Z_scope.

Example h_roundtrip_bare_molecule_ex :
  graph_to_mol (h_to_implicit (h_to_explicit ex_bare None false)) = graph_to_mol ex_bare /\ graph_to_mol ex_bare <> None.
Proof. vm_compute. split; [reflexivity|discriminate]. Qed.
