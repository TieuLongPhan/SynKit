(** C01 — the hypothesis [orders_pos] of the round trip is needed: a stored bond of order 0 (RDKit BondType.ZERO) is kept by
    construct as the pair (0, 0) but dropped by its_decompose (`if order_g > 0`) *)
From Coq Require Import List NArith ZArith Bool.
From SK Require Import lib.LGraph lib.C01_GraphLemmas model.C01_Model proof.C01_OptsProof proof.C01_Proof.
Import ListNotations.
Local Open Scope Z_scope.

Definition ex_z : mgraph := LG [(1%N, ex_na 70%N 3 1); (2%N, ex_na 70%N 3 2)] [(1%N, 2%N, 0)].

Theorem order_zero_refuted :
  wf ex_z /\ same_nodes ex_z ex_z /\ ~ orders_pos ex_z /\
  adj (its_construct ex_z ex_z) 1%N 2%N = Some (IE 0 0 0) /\
  adj (fst (its_decompose (its_construct ex_z ex_z))) 1%N 2%N = None /\ adj ex_z 1%N 2%N = Some 0.
Proof.
  split; [apply wfb_spec; reflexivity|].
  split; [intros n; tauto|]. split; [intros P; specialize (P 1%N 2%N 0 (or_introl eq_refl)); discriminate P|].
  repeat split; reflexivity.
Qed.
