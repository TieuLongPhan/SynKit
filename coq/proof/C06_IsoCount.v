(** C06 — two presentations of a graph have the same number of components. *)
From Coq Require Import List NArith Bool Arith Lia Permutation SetoidList Relations.
From SK Require Import lib.LGraph lib.Mono lib.Reach model.C06_Model lib.C06_Spec proof.C06_All proof.C06_Comps proof.C06_CompSem proof.C06_Main proof.C06_Iso.
Import ListNotations.

(** every component of [G] meets, through [f], a component of [G'], and no two meet the same *)
Lemma comps_count_le f f' (G G' : graph) : gwf G -> gwf G' -> presents f f' G G' ->
  length (comps G) <= length (comps G').
Proof.
  intros WG WG' PG.
  apply (rel_length (fun c c' => In c (comps G) /\ In c' (comps G') /\ exists x, In x c /\ In (f x) c')).
  - apply comps_NoDup. exact WG.
  - intros c Hc. destruct (comps_class G WG c Hc) as (Hne & _ & Hincl & _).
    destruct c as [|x c]; [congruence|].
    assert (Hx : In x (node_ids G)) by (apply Hincl; left; reflexivity).
    destruct (comps_cover G' WG' (f x) (pr_in _ _ _ _ PG x Hx)) as (c' & Hc' & Hfx).
    exists c'. split; [exact Hc'|]. split; [exact Hc|]. split; [exact Hc'|]. exists x. split; [left; reflexivity|exact Hfx].
  - intros c1 c2 c' (H1 & Hc' & x1 & Hx1 & Hf1) (H2 & _ & x2 & Hx2 & Hf2).
    destruct (comps_class G WG c1 H1) as (_ & _ & I1 & Cl1).
    destruct (comps_class G WG c2 H2) as (_ & _ & I2 & _).
    destruct (comps_class G' WG' c' Hc') as (_ & _ & _ & Cl').
    assert (Hc : gconn G' (f x1) (f x2)) by (apply (Cl' (f x1) (f x2) Hf1); exact Hf2).
    pose proof (gconn_presents f' f G' G WG' (presents_sym _ _ _ _ PG) (f x1) (f x2)
                  (pr_in _ _ _ _ PG x1 (I1 x1 Hx1)) Hc) as Hc0.
    rewrite (pr_inv _ _ _ _ PG x1 (I1 x1 Hx1)), (pr_inv _ _ _ _ PG x2 (I2 x2 Hx2)) in Hc0.
    apply (comps_disjoint_val G WG c1 c2 x2 H1 H2); [|exact Hx2].
    apply (Cl1 x1 x2 Hx1). exact Hc0.
Qed.

Theorem comps_count_presents f f' (G G' : graph) : gwf G -> gwf G' -> presents f f' G G' ->
  length (comps G') = length (comps G).
Proof.
  intros WG WG' PG. apply Nat.le_antisymm.
  - exact (comps_count_le f' f G' G WG' WG (presents_sym _ _ _ _ PG)).
  - exact (comps_count_le f f' G G' WG WG' PG).
Qed.

(** component-aware strategy, no limits, full statement (no premise about the counts) *)
Theorem comp_presentation_invariant enum enum' strict f f' g g' (H H' P P' : graph) :
  gwf H -> gwf P -> gwf H' -> gwf P' ->
  presents f f' H H' -> presents g g' P P' ->
  oracle_ok enum H P -> oracle_ok enum' H' P' ->
  exists T0 : N, forall T : N, (T0 <= T)%N ->
  forall m, In m (find enum (Cfg 1 0 T strict false) H P) ->
  exists m', In m' (find enum' (Cfg 1 0 T strict false) H' P') /\ Permutation (rename g f m) m'.
Proof.
  intros WH WP WH' WP' PH PP O1 O2.
  exact (comp_presentation_invariant_partial enum enum' strict f f' g g' H H' P P' WH WP WH' WP' PH PP O1 O2
           (comps_count_presents f f' H H' WH WH' PH) (comps_count_presents g g' P P' WP WP' PP)).
Qed.

(** non-vacuity: the two presentations of proof/C06_Iso.v *)
Example ex_comp_presentation : exists T0 : N, forall T : N, (T0 <= T)%N ->
  forall m, In m (find (monos_on Ha Pa) (Cfg 1 0 T false false) Ha Pa) ->
  exists m', In m' (find (monos_on Hb Pb) (Cfg 1 0 T false false) Hb Pb) /\ Permutation (rename fP fH m) m'.
Proof.
  assert (WHa : gwf Ha) by (apply gwfb_spec; vm_compute; reflexivity).
  assert (WPa : gwf Pa) by (apply gwfb_spec; vm_compute; reflexivity).
  assert (WHb : gwf Hb) by (apply gwfb_spec; vm_compute; reflexivity).
  assert (WPb : gwf Pb) by (apply gwfb_spec; vm_compute; reflexivity).
  apply (comp_presentation_invariant _ _ false fH fH' fP fP' Ha Hb Pa Pb WHa WPa WHb WPb presents_Hab presents_Pab).
  - apply monos_on_oracle_ok; assumption.
  - apply monos_on_oracle_ok; assumption.
Qed.

Example ex_counts : length (comps Ha) = 1 /\ length (comps Hb) = 1 /\
  find (monos_on Ha Pa) (Cfg 1 0 5000 false false) Ha Pa = [[(2, 3); (1, 2)]%N].
Proof. vm_compute. repeat split; reflexivity. Qed.
