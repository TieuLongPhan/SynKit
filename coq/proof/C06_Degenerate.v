(** C06 — degenerate inputs: the empty pattern has exactly one embedding (the empty map) into every host,
    for every strategy; a non-empty pattern has none into the empty host. *)
From Coq Require Import List NArith Bool Arith Lia.
From SK Require Import lib.LGraph lib.Mono lib.Reach model.C06_Model lib.C06_Spec proof.C06_Comps.
Import ListNotations.

Definition empty_graph : graph := LG [] [].

Theorem empty_pattern (strat maxr T : N) (strict pref : bool) (H : graph) :
  (1 <= T)%N ->
  find (monos_on H empty_graph) (Cfg strat maxr T strict pref) H empty_graph = [[]].
Proof.
  intros HT. unfold find. cbn [c_pref c_thr c_strat c_maxr c_strict].
  assert (Eq : quick_pre_filter H empty_graph T = false) by reflexivity.
  rewrite Eq, andb_false_r.
  assert (Eall : find_all (monos_on H empty_graph) maxr T H empty_graph = [[]]).
  { unfold find_all, monos_on, monos. cbn [node_ids gnodes empty_graph map extend all_loop].
    destruct (capped maxr (N.succ 0)); [reflexivity|].
    destruct (N.ltb_spec T (N.succ 0)); [lia|reflexivity]. }
  assert (Ecomp : find_comp (monos_on H empty_graph) maxr T strict H empty_graph = [[]]) by reflexivity.
  destruct strat as [|[p|p|]]; unfold find_bt; rewrite ?Ecomp, ?Eall; cbv iota.
  all: match goal with |- (if ?b then _ else _) = _ =>
         assert (Hb : b = false) by (apply N.ltb_ge; exact HT); rewrite Hb end; reflexivity.
Qed.

Lemma comps_nonempty (g : graph) : gwf g -> node_ids g <> [] -> comps g <> [].
Proof.
  intros Hg Hne E. destruct (node_ids g) as [|x r] eqn:En; [congruence|].
  destruct (comps_cover g Hg x) as (c & Hc & _); [rewrite En; left; reflexivity|].
  rewrite E in Hc. destruct Hc.
Qed.

Theorem empty_host (enum : list N -> list N -> list mapping) (c : cfg) (P : graph) :
  gwf P -> node_ids P <> [] ->
  enum [] (node_ids P) = [] ->
  find enum c empty_graph P = [].
Proof.
  intros WP Hne He. unfold find.
  destruct (c_pref c && quick_pre_filter empty_graph P (c_thr c)); [reflexivity|].
  assert (Eall : forall maxr thr, find_all enum maxr thr empty_graph P = []).
  { intros maxr thr. unfold find_all. cbn [node_ids gnodes empty_graph map]. rewrite He. reflexivity. }
  assert (Ecomp : forall maxr thr strict, find_comp enum maxr thr strict empty_graph P = []).
  { intros maxr thr strict. unfold find_comp.
    pose proof (comps_nonempty P WP Hne) as Hc.
    change (comps empty_graph) with (@nil (list N)). cbn [length].
    destruct (comps P) as [|pc r]; [congruence|]. cbn [length Nat.eqb Nat.ltb Nat.leb]. apply Eall. }
  destruct (c_strat c) as [|[p|p|]]; unfold find_bt; rewrite ?Ecomp, ?Eall; cbv iota; destruct (c_thr c <? lenN [])%N; reflexivity.
Qed.

(** the verified enumerator lists nothing for an empty host and a non-empty pattern *)
Lemma monos_on_empty_host (H P : graph) pn : pn <> [] -> monos_on H P [] pn = [].
Proof. intros Hne. destruct pn as [|p r]; [congruence|]. reflexivity. Qed.

Local Open Scope N_scope.
Definition Pone : graph := LG [ (5, ([1], 0)) ] [].
Example ex_degenerate :
  find (monos_on Pone empty_graph) (Cfg 1 0 5000 true false) Pone empty_graph = [[]] /\
  find (monos_on Pone empty_graph) (Cfg 0 0 0 true false) Pone empty_graph = [] /\
  find (monos_on empty_graph Pone) (Cfg 2 0 5000 true false) empty_graph Pone = [] /\
  find (monos_on empty_graph empty_graph) (Cfg 0 0 5000 true true) empty_graph empty_graph = [[]].
Proof. vm_compute. repeat split; reflexivity. Qed.
