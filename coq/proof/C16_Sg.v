(** C16 — species graph: collapsing a two-sided network and reconstructing it reproduces ids and stoichiometry. *)
From stdpp Require Import gmap strings sets pretty sorting.
From SK Require Import lib.Tok model.C15_Model proof.C15_Proof model.C16_Model proof.C16_Defs proof.C16_Common.
Local Open Scope string_scope.
Local Open Scope list_scope.

(** * export as one fold over (reaction, reactant, product) tuples *)
Record tup := Tup { t_e : string; t_rule : string; t_u : string; t_c : positive; t_v : string; t_d : positive }.
Definition tuples_of (e : string) (rx : rxn) : list tup :=
  uc ← map_to_list (r_lhs rx); vd ← map_to_list (r_rhs rx); [Tup e (r_rule rx) uc.1 uc.2 vd.1 vd.2].
Definition all_tuples (E : list (string * rxn)) : list tup := p ← E; tuples_of p.1 p.2.
Definition step_tuple (G : sgraph) (t : tup) : sgraph := collapse_pair (t_e t) (t_rule t) G (t_u t) (t_c t) (t_v t) (t_d t).

Lemma collapse_rxn_flat e rx G : collapse_rxn e rx G = foldl step_tuple G (tuples_of e rx).
Proof.
  unfold collapse_rxn, tuples_of. rewrite foldl_bind. apply foldl_ext_in. intros G' uc _.
  rewrite foldl_bind. done.
Qed.
Lemma export_flat (E : list (string * rxn)) G : foldl (λ G p, collapse_rxn p.1 p.2 G) G E = foldl step_tuple G (all_tuples E).
Proof.
  unfold all_tuples. rewrite foldl_bind. apply foldl_ext_in. intros G' p _. apply collapse_rxn_flat.
Qed.

Lemma elem_of_tuples_of e rx t : t ∈ tuples_of e rx ↔
  t_e t = e ∧ t_rule t = r_rule rx ∧ r_lhs rx !! t_u t = Some (t_c t) ∧ r_rhs rx !! t_v t = Some (t_d t).
Proof.
  unfold tuples_of. rewrite elem_of_list_bind. split.
  - intros ([u c] & Hin1 & Huc). apply elem_of_list_bind in Hin1 as ([v d] & Ht%elem_of_list_singleton & Hvd).
    apply elem_of_map_to_list in Hvd, Huc. subst t. done.
  - intros (He & Hr & Hu & Hv). exists (t_u t, t_c t). split; [|by apply elem_of_map_to_list].
    apply elem_of_list_bind. exists (t_v t, t_d t). split; [|by apply elem_of_map_to_list].
    apply elem_of_list_singleton. destruct t; simpl in *. by subst.
Qed.
Definition sg_tuples (H : net) : list tup := all_tuples (map_to_list (edges H)).
Lemma elem_of_sg_tuples H t : t ∈ sg_tuples H ↔
  ∃ rx, edges H !! t_e t = Some rx ∧ t_rule t = r_rule rx ∧ r_lhs rx !! t_u t = Some (t_c t) ∧ r_rhs rx !! t_v t = Some (t_d t).
Proof.
  unfold sg_tuples, all_tuples. rewrite elem_of_list_bind. split.
  - intros ([e rx] & (He & ?)%elem_of_tuples_of & Hin%elem_of_map_to_list). simpl in *. subst e. eauto.
  - intros (rx & Hin & ?). exists (t_e t, rx). split; [by apply elem_of_tuples_of|by apply elem_of_map_to_list].
Qed.

(** the coefficients of a tuple are determined by (reaction id, reactant, product) *)
Definition tfun (l : list tup) : Prop :=
  ∀ t t', t ∈ l → t' ∈ l → t_e t = t_e t' → t_u t = t_u t' → t_v t = t_v t' → t_c t = t_c t' ∧ t_d t = t_d t'.

Lemma tfun_sg H : tfun (sg_tuples H).
Proof.
  intros t t' (rx & Hin & _ & Hu & Hv)%elem_of_sg_tuples (rx' & Hin' & _ & Hu' & Hv')%elem_of_sg_tuples He Hue Hve.
  rewrite He in Hin. simplify_eq. rewrite Hue in Hu. rewrite Hve in Hv. by simplify_eq.
Qed.

(** * the arc invariant *)
Record AInv (done : list tup) (arcs : gmap (string * string) sarc) : Prop := {
  ai_via : ∀ u v a e, arcs !! (u, v) = Some a → e ∈ sa_via a ↔ ∃ t, t ∈ done ∧ t_e t = e ∧ t_u t = u ∧ t_v t = v;
  ai_map : ∀ a t, arcs !! (t_u t, t_v t) = Some a → t ∈ done →
             sa_rmap a !! t_e t = Some (Z.pos (t_c t)) ∧ sa_pmap a !! t_e t = Some (Z.pos (t_d t));
  ai_arc : ∀ t, t ∈ done → is_Some (arcs !! (t_u t, t_v t));
  ai_ne : ∀ uv a, arcs !! uv = Some a → sa_via a ≠ ∅
}.
(** what the import needs of the arcs: the `via` sets, and that the coefficient it READS for a reaction on an arc — the entry of
    the per-reaction map, else the legacy per-arc value — is the reaction's coefficient *)
Record VAInv (done : list tup) (arcs : gmap (string * string) sarc) : Prop := {
  va_via : ∀ u v a e, arcs !! (u, v) = Some a → e ∈ sa_via a ↔ ∃ t, t ∈ done ∧ t_e t = e ∧ t_u t = u ∧ t_v t = v;
  va_val : ∀ a t, arcs !! (t_u t, t_v t) = Some a → t ∈ done →
             default (sa_r a) (sa_rmap a !! t_e t) = Z.pos (t_c t) ∧ default (sa_p a) (sa_pmap a !! t_e t) = Z.pos (t_d t);
  va_arc : ∀ t, t ∈ done → is_Some (arcs !! (t_u t, t_v t));
  va_ne : ∀ uv a, arcs !! uv = Some a → sa_via a ≠ ∅
}.
Lemma AInv_VAInv done arcs : AInv done arcs → VAInv done arcs.
Proof.
  intros [Hvia Hmap Harc Hne]. split; [done| |done|done].
  intros a t Ha Ht. destruct (Hmap a t Ha Ht) as [-> ->]. done.
Qed.

(** every node label is absent or the node id: [snode_label] is the identity *)
Definition NInv (nodes : gmap string snode) : Prop :=
  ∀ x nd, nodes !! x = Some nd → sn_label nd = None ∨ sn_label nd = Some x.

Lemma tfun_app_l l l' : tfun (l ++ l') → tfun l.
Proof. intros Hf t t' Ht Ht'. apply Hf; apply elem_of_app; by left. Qed.

Lemma AInv_nil : AInv [] ∅.
Proof.
  split; [by intros ???? ?%lookup_empty_Some|by intros ??? ?%elem_of_nil|by intros ? ?%elem_of_nil|by intros ?? ?%lookup_empty_Some].
Qed.

Lemma step_AInv done G t : AInv done (g_arcs G) → tfun (done ++ [t]) → AInv (done ++ [t]) (g_arcs (step_tuple G t)).
Proof.
  intros [Hvia Hmap Harc Hne0] Hfun. unfold step_tuple, collapse_pair. cbn [g_arcs].
  set (a' := match g_arcs G !! (t_u t, t_v t) with Some d => _ | None => _ end).
  assert (∀ e, e ∈ sa_via a' ↔ e = t_e t ∨ ∃ t0, t0 ∈ done ∧ t_e t0 = e ∧ t_u t0 = t_u t ∧ t_v t0 = t_v t) as Hvia'.
  { intros e. unfold a'. destruct (g_arcs G !! (t_u t, t_v t)) as [d|] eqn:E; cbn [sa_via].
    - rewrite elem_of_union, elem_of_singleton. by rewrite (Hvia _ _ _ e E).
    - rewrite elem_of_singleton. split; [by left|]. intros [?|(t0 & Hin & _ & Hu & Hv)]; [done|].
      destruct (Harc t0 Hin) as [? Hs]. rewrite Hu, Hv in Hs. congruence. }
  pose proof (elem_of_snoc_l done t) as Hold. pose proof (elem_of_snoc_r done t) as Hnew.
  split.
  - intros u v a e. destruct (decide ((u, v) = (t_u t, t_v t))) as [[= -> ->]|Hne].
    + rewrite lookup_insert. intros [= <-]. rewrite Hvia'. split.
      * intros [->|(t0 & Hin & ?)]; [exists t|exists t0]; auto.
      * intros (t0 & [Hin| ->]%elem_of_snoc & He & Hu & Hv); [right; eauto|by left].
    + rewrite lookup_insert_ne by done. intros Ha. rewrite (Hvia _ _ _ e Ha). split.
      * intros (t0 & Hin & ?). exists t0. auto.
      * intros (t0 & [Hin| ->]%elem_of_snoc & He & Hu & Hv); [eauto|congruence].
  - intros a t0 Ha Hin0. destruct (decide ((t_u t0, t_v t0) = (t_u t, t_v t))) as [Heq|Hne].
    + rewrite Heq, lookup_insert in Ha. injection Ha as <-. injection Heq as Hu Hv.
      destruct (decide (t_e t0 = t_e t)) as [He|He].
      * destruct (Hfun t0 t Hin0 Hnew He Hu Hv) as [-> ->]. rewrite He. unfold a'.
        destruct (g_arcs G !! (t_u t, t_v t)); cbn [sa_rmap sa_pmap]; by rewrite ?lookup_insert, ?lookup_singleton.
      * assert (t0 ∈ done) as Hd.
        { apply elem_of_snoc in Hin0 as [?| ->]; done. }
        unfold a'. destruct (g_arcs G !! (t_u t, t_v t)) as [d|] eqn:E; cbn [sa_rmap sa_pmap].
        -- rewrite !lookup_insert_ne by done. apply Hmap; [|done]. by rewrite Hu, Hv.
        -- destruct (Harc t0 Hd) as [? Hs]. rewrite Hu, Hv in Hs. congruence.
    + rewrite lookup_insert_ne in Ha by done. apply Hmap; [done|].
      apply elem_of_snoc in Hin0 as [?| ->]; done.
  - intros t0 Hin0. destruct (decide ((t_u t0, t_v t0) = (t_u t, t_v t))) as [Heq|Hne].
    + rewrite Heq, lookup_insert. eauto.
    + rewrite lookup_insert_ne by done. apply Harc.
      apply elem_of_snoc in Hin0 as [?| ->]; done.
  - intros uv a. destruct (decide (uv = (t_u t, t_v t))) as [->|Hne].
    + rewrite lookup_insert. intros [= <-] Hem. assert (t_e t ∈ sa_via a') as Hin by (apply Hvia'; by left).
      rewrite Hem in Hin. by apply elem_of_empty in Hin.
    + rewrite lookup_insert_ne by done. apply Hne0.
Qed.

(** a further property [P] of the arcs that every step preserves next to [AInv], under a condition [Q] on the tuples
    processed so far that prefixes inherit *)
Section fold_with.
  Context (P : list tup → gmap (string * string) sarc → Prop) (Q : list tup → Prop).
  Context (HQ : ∀ l l', Q (l ++ l') → Q l).
  Context (Hstep : ∀ done G t, AInv done (g_arcs G) → P done (g_arcs G) → Q (done ++ [t]) →
                     P (done ++ [t]) (g_arcs (step_tuple G t))).

  Lemma export_inv_with im H : P [] ∅ → Q (sg_tuples H) →
    AInv (sg_tuples H) (g_arcs (hypergraph_to_species_graph im H)) ∧ P (sg_tuples H) (g_arcs (hypergraph_to_species_graph im H)).
  Proof.
    intros HP Hq. unfold hypergraph_to_species_graph. rewrite export_flat.
    apply (foldl_snoc_ind step_tuple (λ done G, AInv done (g_arcs G) ∧ P done (g_arcs G)) (λ l, tfun l ∧ Q l)) with (done := []).
    - intros l l' [Hf Hq']. split; [by eapply tfun_app_l|by eapply HQ].
    - intros done G t [Hf Hq'] [HA HP']. split; [by apply step_AInv|by apply Hstep].
    - split; [apply tfun_sg|done].
    - split; [apply AInv_nil|done].
  Qed.
End fold_with.

(** * the species nodes of the exported graph *)
Definition sg_node (im : bool) (H : net) (x : string) : snode :=
  SNode (Some x) (Some "species") (if im then mol H !! x else None).
Record NodeInv (im : bool) (H : net) (nodes : gmap string snode) : Prop := {
  ni_species : ∀ x, x ∈ species H → nodes !! x = Some (sg_node im H x);
  ni_other : ∀ x nd, nodes !! x = Some nd → x ∈ species H ∨ nd = SNode None None None
}.

Lemma ensure_node_NodeInv im H x nodes : NodeInv im H nodes → NodeInv im H (ensure_node x nodes).
Proof.
  intros [Ha Hb]. unfold ensure_node. destruct (nodes !! x) eqn:E; [done|]. split.
  - intros y Hy. rewrite lookup_insert_ne; [by apply Ha|]. intros ->. rewrite Ha in E by done. done.
  - intros y nd. rewrite lookup_insert_Some. intros [[<- <-]|[_ ?]]; [by right|by eapply Hb].
Qed.
Lemma fold_NodeInv im H l : ∀ G, NodeInv im H (g_nodes G) → NodeInv im H (g_nodes (foldl step_tuple G l)).
Proof.
  induction l as [|t l IH]; intros G HG; [done|]. cbn [foldl]. apply IH.
  unfold step_tuple, collapse_pair. cbn [g_nodes]. by repeat apply ensure_node_NodeInv.
Qed.
Lemma insert_fold_lookup {A} (f : string → A) (l : list string) : ∀ (m : gmap string A) x,
  foldl (λ acc s, <[ s := f s ]> acc) m l !! x = if decide (x ∈ l) then Some (f x) else m !! x.
Proof.
  induction l as [|s l IH]; intros m x; cbn [foldl].
  - by rewrite decide_False by apply not_elem_of_nil.
  - rewrite IH. destruct (decide (x ∈ l)) as [Hin|Hnin].
    + by rewrite decide_True by (by right).
    + destruct (decide (x = s)) as [->|Hne].
      * rewrite decide_True by left. by rewrite lookup_insert.
      * rewrite decide_False by (intros [?|?]%elem_of_cons; done). by rewrite lookup_insert_ne.
Qed.
Lemma export_NodeInv im H : NodeInv im H (g_nodes (hypergraph_to_species_graph im H)).
Proof.
  unfold hypergraph_to_species_graph. rewrite export_flat. apply fold_NodeInv. cbn [g_nodes]. split.
  - intros x Hx. rewrite (insert_fold_lookup (sg_node im H)). by rewrite decide_True by (by apply elem_of_elements).
  - intros x nd. rewrite (insert_fold_lookup (sg_node im H)). destruct (decide (x ∈ elements (species H))) as [Hin|_].
    + left. by apply elem_of_elements in Hin.
    + by intros ?%lookup_empty_Some.
Qed.

Lemma NodeInv_NInv im H nodes : NodeInv im H nodes → NInv nodes.
Proof.
  intros [Ha Hb] x nd Hx. destruct (Hb x nd Hx) as [Hs| ->]; [|by left].
  rewrite (Ha x Hs) in Hx. injection Hx as <-. by right.
Qed.

Lemma export_inv im H :
  AInv (sg_tuples H) (g_arcs (hypergraph_to_species_graph im H)) ∧ NInv (g_nodes (hypergraph_to_species_graph im H)).
Proof.
  split; [by destruct (export_inv_with (λ _ _, True) (λ _, True)) with (im := im) (H := H)|].
  eapply NodeInv_NInv, export_NodeInv.
Qed.

(** * import: grouping the arcs by reaction id *)
Definition triple := (string * string * sarc * string)%type.
Definition triples (arcs : gmap (string * string) sarc) : list triple :=
  p ← map_to_list arcs; (λ e, (p.1, p.2, e)) <$> elements (sa_via p.2).
Lemma elem_of_triples arcs u v a e : (u, v, a, e) ∈ triples arcs ↔ arcs !! (u, v) = Some a ∧ e ∈ sa_via a.
Proof.
  unfold triples. rewrite elem_of_list_bind. split.
  - by intros ([[u' v'] a'] & (e1 & [= -> -> -> ->] & He%elem_of_elements)%elem_of_list_fmap & Hin%elem_of_map_to_list).
  - intros [Ha He]. exists (u, v, a). split; [|by apply elem_of_map_to_list].
    apply elem_of_list_fmap. exists e. split; [done|by apply elem_of_elements].
Qed.
Definition group_triple (G : sgraph) (acc : gmap string sentry) (t : triple) : gmap string sentry :=
  group_one G t.1.1 t.1.2 acc t.2.

Lemma entries_flat G : (∀ uv a, g_arcs G !! uv = Some a → sa_via a ≠ ∅) →
  species_graph_entries G = (foldl (group_triple G) ∅ (triples (g_arcs G)), false).
Proof.
  intros Hvia. unfold species_graph_entries, triples.
  assert (Forall (λ p : string * string * sarc, sa_via p.2 ≠ ∅) (map_to_list (g_arcs G))) as HF.
  { apply Forall_forall. intros [uv a] Hin%elem_of_map_to_list. by eapply Hvia. }
  revert HF. generalize (map_to_list (g_arcs G)). generalize (∅ : gmap string sentry).
  intros acc l. revert acc. induction l as [|p l IH]; intros acc HF; [done|].
  apply Forall_cons in HF as [Hp HF]. cbn [foldl mbind list_bind]. rewrite foldl_app.
  unfold group_arc at 2. rewrite decide_False by done. cbn [fst snd]. rewrite IH by done. f_equal. f_equal.
  by rewrite foldl_fmap.
Qed.

Section import.
  Context (H : net) (G : sgraph).
  Context (HA : VAInv (sg_tuples H) (g_arcs G)) (HN : NInv (g_nodes G)).

  Lemma snode_label_id x : snode_label G x = x.
  Proof.
    unfold snode_label. destruct (g_nodes G !! x) as [nd|] eqn:E; [|done]. simpl.
    destruct (HN x nd E) as [->| ->]; done.
  Qed.

  (** what every (arc, id) pair of the exported graph carries *)
  Definition triple_ok (t : triple) : Prop :=
    ∃ rx c d, edges H !! t.2 = Some rx ∧ r_lhs rx !! t.1.1.1 = Some c ∧ r_rhs rx !! t.1.1.2 = Some d ∧
              default (sa_r t.1.2) (sa_rmap t.1.2 !! t.2) = Z.pos c ∧ default (sa_p t.1.2) (sa_pmap t.1.2 !! t.2) = Z.pos d.

  Lemma triples_good t : t ∈ triples (g_arcs G) → triple_ok t.
  Proof.
    destruct t as [[[u v] a] e]. intros [Hin He]%elem_of_triples. cbn [fst snd].
    apply (va_via _ _ HA u v a e Hin) in He as (t & Ht & <- & <- & <-).
    destruct (va_val _ _ HA a t Hin Ht) as [Hr Hp]. apply elem_of_sg_tuples in Ht as (rx & Hrx & _ & Hu & Hv).
    by exists rx, (t_c t), (t_d t).
  Qed.

  Definition reads_sound (sd : side) (m : gmap string Z) : Prop :=
    ∀ u z, m !! u = Some z → ∃ c, sd !! u = Some c ∧ z = Z.pos c.
  Definition ent_ok (rx : rxn) (ent : sentry) : Prop :=
    se_clash ent = false ∧ reads_sound (r_lhs rx) (se_r ent) ∧ reads_sound (r_rhs rx) (se_p ent).

  Lemma reads_sound_total (sd : side) m : reads_sound sd m → (∀ u c, sd !! u = Some c → is_Some (m !! u)) → m = Z.pos <$> sd.
  Proof.
    intros Hs Ht. apply map_eq. intros u. rewrite lookup_fmap. destruct ((sd : gmap string positive) !! u) as [c|] eqn:Hu; cbn.
    - destruct (Ht u c Hu) as [z Hz]. rewrite Hz. destruct (Hs u z Hz) as (c' & Hc' & ->).
      pose proof (eq_trans (eq_sym Hu) Hc') as [= ->]. done.
    - destruct (m !! u) as [z|] eqn:Hz; [|done]. destruct (Hs u z Hz) as (c' & Hc' & _).
      by pose proof (eq_trans (eq_sym Hu) Hc').
  Qed.

  Lemma put_first_ok (sd : side) m s c : reads_sound sd m → sd !! s = Some c →
    ∃ m', put_first m s (Z.pos c) = (m', false) ∧ reads_sound sd m' ∧ is_Some (m' !! s) ∧ (∀ u, is_Some (m !! u) → is_Some (m' !! u)).
  Proof.
    intros Hm Hs. unfold put_first. destruct (m !! s) as [z|] eqn:E.
    - destruct (Hm s z E) as (c' & Hc' & ->). rewrite Hs in Hc'. injection Hc' as <-.
      exists m. split; [by rewrite bool_decide_eq_false_2 by (by intros ?)|]. split; [done|]. split; [by rewrite E|done].
    - exists (<[s := Z.pos c]> m). split; [done|]. split_and!.
      + intros u z. rewrite lookup_insert_Some. intros [[<- <-]|[_ ?]]; [eauto|by apply Hm].
      + by rewrite lookup_insert.
      + intros u [z Hz]. destruct (decide (u = s)) as [->|?]; [by rewrite lookup_insert|by rewrite lookup_insert_ne, Hz by done].
  Qed.

  Record EInv (done : list triple) (ents : gmap string sentry) : Prop := {
    ei_sound : ∀ e ent, ents !! e = Some ent → ∃ rx, edges H !! e = Some rx ∧ ent_ok rx ent;
    ei_complete : ∀ t, t ∈ done →
      ∃ ent, ents !! t.2 = Some ent ∧ is_Some (se_r ent !! t.1.1.1) ∧ is_Some (se_p ent !! t.1.1.2)
  }.

  Lemma group_triple_EInv done ents t : EInv done ents → triple_ok t → EInv (done ++ [t]) (group_triple G ents t).
  Proof.
    intros [Hs Hc] (rx & c & d & Hrx & Hu & Hv & Hr & Hp). destruct t as [[[u v] a] e]. cbn [fst snd] in *.
    unfold group_triple, group_one. cbn [fst snd]. rewrite Hr, Hp, !snode_label_id. cbn [default].
    set (ent0 := default (SEntry ∅ ∅ ∅ false) (ents !! e)).
    assert (ent_ok rx ent0) as (Hcl & Hsr & Hsp).
    { unfold ent0. destruct (ents !! e) as [ent|] eqn:E; cbn [default].
      - destruct (Hs e ent E) as (rx' & Hrx' & Hok). by simplify_eq.
      - split; [done|]. split; intros ?? Hq; cbn in Hq; by apply lookup_empty_Some in Hq. }
    unfold id. destruct (put_first_ok _ _ u c Hsr Hu) as (rm & -> & Hrm & Hrmu & Hrmono).
    destruct (put_first_ok _ _ v d Hsp Hv) as (pm & -> & Hpm & Hpmv & Hpmono).
    rewrite Hcl. cbn [orb]. split.
    - intros e' ent'. rewrite lookup_insert_Some. intros [[<- <-]|[_ ?]]; [|by apply Hs].
      exists rx. split; [done|]. by split.
    - intros t0 [Hin|Hq]%elem_of_snoc.
      + destruct (Hc t0 Hin) as (ent1 & He1 & H1 & H2). destruct (decide (t0.2 = e)) as [Heq|Hne].
        * rewrite Heq, lookup_insert. eexists. split; [done|]. cbn [se_r se_p].
          assert (ent0 = ent1) as -> by (unfold ent0; by rewrite <-Heq, He1). auto.
        * rewrite lookup_insert_ne by done. eauto.
      + subst t0. cbn [fst snd]. rewrite lookup_insert. eexists. split; [done|]. done.
  Qed.

  Definition sg_ents : gmap string sentry := foldl (group_triple G) ∅ (triples (g_arcs G)).

  Lemma sg_ents_EInv : EInv (triples (g_arcs G)) sg_ents.
  Proof.
    apply (foldl_snoc_ind (group_triple G) EInv (Forall triple_ok)) with (done := []).
    - by intros l l' [? _]%Forall_app.
    - intros done ents t [_ Ht%Forall_inv]%Forall_app HE. by apply group_triple_EInv.
    - apply Forall_forall. intros t. apply triples_good.
    - split; [by intros ?? ?%lookup_empty_Some|by intros ? ?%elem_of_nil].
  Qed.

  Lemma triple_of_tuple e rx u c v d :
    edges H !! e = Some rx → r_lhs rx !! u = Some c → r_rhs rx !! v = Some d → ∃ a, (u, v, a, e) ∈ triples (g_arcs G).
  Proof.
    intros Hrx Hu Hv.
    assert (Tup e (r_rule rx) u c v d ∈ sg_tuples H) as Ht by (apply elem_of_sg_tuples; by exists rx).
    destruct (va_arc _ _ HA _ Ht) as [a Ha]. cbn in Ha. exists a. apply elem_of_triples. split; [done|].
    apply (va_via _ _ HA u v a e Ha). eexists. split; [exact Ht|done].
  Qed.

  Context (H2 : two_sided H).

  Lemma sg_ents_dom e rx : edges H !! e = Some rx → is_Some (sg_ents !! e).
  Proof.
    intros Hrx. destruct (H2 e rx Hrx) as [Hl Hr].
    apply map_choose in Hl as (u & c & Hu). apply map_choose in Hr as (v & d & Hv).
    destruct (triple_of_tuple e rx u c v d Hrx Hu Hv) as [a Hin].
    destruct (ei_complete _ _ sg_ents_EInv _ Hin) as (ent & He & _). cbn in He. eauto.
  Qed.

  Lemma sg_ents_spec e ent : sg_ents !! e = Some ent →
    ∃ rx, edges H !! e = Some rx ∧ se_clash ent = false ∧
          se_r ent = Z.pos <$> r_lhs rx ∧ se_p ent = Z.pos <$> r_rhs rx.
  Proof.
    intros He. destruct (ei_sound _ _ sg_ents_EInv e ent He) as (rx & Hrx & Hcl & Hsr & Hsp).
    exists rx. split; [done|]. split; [done|]. destruct (H2 e rx Hrx) as [Hl Hr].
    apply map_choose in Hl as (u0 & c0 & Hu0). apply map_choose in Hr as (v0 & d0 & Hv0).
    split; (apply reads_sound_total; [done|]).
    - intros u c Hu. destruct (triple_of_tuple e rx u c v0 d0 Hrx Hu Hv0) as [a Hin].
      destruct (ei_complete _ _ sg_ents_EInv _ Hin) as (ent1 & He1 & Hz & _). cbn in *. by simplify_eq.
    - intros v d Hv. destruct (triple_of_tuple e rx u0 c0 v d Hrx Hu0 Hv) as [a Hin].
      destruct (ei_complete _ _ sg_ents_EInv _ Hin) as (ent1 & He1 & _ & Hz). cbn in *. by simplify_eq.
  Qed.
End import.

(** * the round trip *)
Definition sg_rule (pick : gset string → string) (default_rule : string) (ent : sentry) : string :=
  if decide (se_rules ent = ∅) then default_rule else pick (se_rules ent).
Definition sg_mol_step (acc : net) (xn : string * snode) : net :=
  match sn_mol xn.2 with
  | Some m => let lbl := default xn.1 (sn_label xn.2) in if decide (lbl ∈ species acc) then set_mol acc lbl m else acc
  | None => acc
  end.
Lemma sg_mol_step_edges l : ∀ s, edges (foldl sg_mol_step s l) = edges s.
Proof.
  induction l as [|xn l IH]; intros s; [done|]. cbn [foldl]. rewrite IH. unfold sg_mol_step.
  destruct (sn_mol xn.2); [|done]. cbv zeta. by destruct (decide _).
Qed.

(** the import of ANY graph whose arcs carry, for the reactions of [H], the `via` sets and the coefficients the importer
    reads ([VAInv]: the entry of the per-reaction map, else the legacy value), whatever its rule sets, `kind` / `mol`
    attributes, labels absent or equal to the node id: the reactions of [H] under their ids, each with the rule read off
    its merged rule set, then the molecule labels *)
Lemma species_graph_import (pick : gset string → string) (default_rule : string) (mol_attr : bool) (H : net) (G : sgraph) :
  two_sided H → VAInv (sg_tuples H) (g_arcs G) → NInv (g_nodes G) →
  ∃ s', species_graph_to_hypergraph pick default_rule mol_attr G
          = (if mol_attr then foldl sg_mol_step s' (map_to_list (g_nodes G)) else s', None) ∧
        edges s' = map_zip_with (λ ent rx, Rxn (norm_rule (sg_rule pick default_rule ent)) (r_lhs rx) (r_rhs rx))
                                (sg_ents G) (edges H) ∧
        species s' = occurring H ∧ mol s' = ∅.
Proof.
  intros H2 HA HN.
  unfold species_graph_to_hypergraph. rewrite (entries_flat G) by (intros; eapply va_ne; eauto).
  fold (sg_ents G). cbn [orb].
  pose proof (sg_ents_spec H G HA HN H2) as Hspec. pose proof (sg_ents_dom H G HA HN H2) as Hdom.
  rewrite bool_decide_eq_false_2.
  2:{ intros (e & ent & He & Hc). destruct (Hspec e ent He) as (rx & _ & Hcl & _). congruence. }
  set (l := sort_by_key (map_to_list (sg_ents G))).
  assert (l ≡ₚ map_to_list (sg_ents G)) as Hperm by apply merge_sort_Permutation.
  assert (∀ e ent, (e, ent) ∈ l ↔ sg_ents G !! e = Some ent) as Hl.
  { intros e ent. by rewrite Hperm, elem_of_map_to_list. }
  set (fl := λ p : string * sentry, normalize (map_to_list (se_r p.2))).
  set (fr := λ p : string * sentry, normalize (map_to_list (se_p p.2))).
  set (frule := λ p : string * sentry, sg_rule pick default_rule p.2).
  assert (∀ e ent, (e, ent) ∈ l → ∃ rx, edges H !! e = Some rx ∧ fl (e, ent) = r_lhs rx ∧ fr (e, ent) = r_rhs rx) as Hside.
  { intros e ent Hin%Hl. destruct (Hspec e ent Hin) as (rx & Hrx & _ & Hr & Hp). exists rx. split; [done|].
    unfold fl, fr. cbn [snd]. by rewrite Hr, Hp, !normalize_pos_map. }
  assert (NoDup l.*1) as Hnd by (rewrite Hperm; apply NoDup_fst_map_to_list).
  destruct (rebuild_fold fst fl fr frule l Hnd) with (s := empty_net) as (s' & Hf & He & Hs & Hm).
  { apply Forall_forall. intros [e ent] Hin. destruct (Hside e ent Hin) as (rx & Hrx & -> & ->).
    destruct (H2 e rx Hrx). tauto. }
  { done. }
  match goal with |- context [foldl ?f (empty_net, None) l] =>
    change (foldl f (empty_net, None) l) with (foldl (rebuild_step fst fl fr frule) (empty_net, None) l) end.
  rewrite Hf. exists s'. split; [done|]. split_and!.
  - rewrite He. cbn [edges empty_net]. rewrite (right_id_L ∅ (∪)). apply map_eq. intros e.
    rewrite map_lookup_zip_with. destruct (sg_ents G !! e) as [ent|] eqn:Hent; cbn.
    + apply Hl in Hent as Hin. destruct (Hside e ent Hin) as (rx & -> & Hfl & Hfr). cbn.
      apply elem_of_list_to_map_1; [by rewrite rebuilt_fst|]. apply elem_of_list_fmap. exists (e, ent). split; [|done].
      unfold rebuilt. cbn [fst]. by rewrite Hfl, Hfr.
    + apply not_elem_of_list_to_map_1. rewrite rebuilt_fst. intros ([e' ent] & -> & Hin%Hl)%elem_of_list_fmap.
      cbn in Hent. congruence.
  - rewrite Hs. cbn [species empty_net]. rewrite (left_id_L ∅ (∪)). apply set_eq. intros x.
    rewrite elem_of_union_list, elem_of_occurring. split.
    + intros (X & ([e ent] & -> & Hin)%elem_of_list_fmap & Hx).
      destruct (Hside e ent Hin) as (rx & Hrx & Hfl & Hfr). rewrite Hfl, Hfr in Hx. by exists e, rx.
    + intros (e & rx & Hrx & Hx). destruct (Hdom e rx Hrx) as [ent Hent]. apply Hl in Hent as Hin.
      destruct (Hside e ent Hin) as (rx' & Hrx' & Hfl & Hfr). assert (rx' = rx) as -> by congruence.
      exists (dom (fl (e, ent)) ∪ dom (fr (e, ent))). split; [|by rewrite Hfl, Hfr].
      apply elem_of_list_fmap. by exists (e, ent).
  - by rewrite Hm.
Qed.

Lemma species_graph_import_stoich (pick : gset string → string) (default_rule : string) (mol_attr : bool) (H : net) (G : sgraph) :
  two_sided H → VAInv (sg_tuples H) (g_arcs G) → NInv (g_nodes G) →
  (species_graph_to_hypergraph pick default_rule mol_attr G).2 = None ∧
  stoich_of <$> edges (species_graph_to_hypergraph pick default_rule mol_attr G).1 = stoich_of <$> edges H.
Proof.
  intros H2 HA HN. destruct (species_graph_import pick default_rule mol_attr H G H2 HA HN) as (s' & -> & He & _).
  split; [done|]. cbn [fst]. assert (edges (if mol_attr then _ else s') = edges s') as -> by (destruct mol_attr; [apply sg_mol_step_edges|done]).
  rewrite He. apply map_eq. intros e. rewrite !lookup_fmap, map_lookup_zip_with.
  destruct (edges H !! e) as [rx|] eqn:Hrx.
  - by destruct (sg_ents_dom H G HA HN H2 e rx Hrx) as [ent ->].
  - by destruct (sg_ents G !! e).
Qed.

Lemma species_graph_roundtrip (pick : gset string → string) (default_rule : string) (include_mol mol_attr : bool) (H : net) :
  two_sided H →
  (species_graph_to_hypergraph pick default_rule mol_attr (hypergraph_to_species_graph include_mol H)).2 = None ∧
  stoich_of <$> edges (species_graph_to_hypergraph pick default_rule mol_attr (hypergraph_to_species_graph include_mol H)).1
    = stoich_of <$> edges H.
Proof.
  intros H2. destruct (export_inv include_mol H) as [HA HN]. apply species_graph_import_stoich; [done|by apply AInv_VAInv|done].
Qed.

(** * non-vacuity *)
Definition ex_sg_net : net :=
  mk_net [] [(None, "r", [("A", 2%Z)], [("B", 1%Z)]); (None, "q", [("A", 1%Z)], [("B", 3%Z)]);
             (Some "x", "r", [("B", 1%Z)], [("C", 1%Z); ("A", 12%Z)])] [("A", "CCO")].
Definition ex_sg_graph : sgraph := hypergraph_to_species_graph true ex_sg_net.
Definition ex_sg_back : net := (species_graph_to_hypergraph pick_first "r" true ex_sg_graph).1.
(** two reactions share the species pair (A, B): one arc, two ids, two coefficient pairs *)
Example ex_sg_shared_arc : bool_decide (two_sided ex_sg_net) = true ∧
  (sa_via <$> g_arcs ex_sg_graph !! ("A", "B")) = Some {[ "r_1"; "q_1" ]} ∧
  (sa_rmap <$> g_arcs ex_sg_graph !! ("A", "B")) = Some {[ "r_1" := 2%Z; "q_1" := 1%Z ]} ∧
  size (edges ex_sg_back) = 3%nat.
Proof. split_and!; [by vm_compute| | |by vm_compute]; apply (bool_decide_unpack _); by vm_compute. Qed.
(** rules are not claimed: the merged rule set of the shared arc has two elements *)
Example ex_sg_rules_merged : (sa_rules <$> g_arcs ex_sg_graph !! ("A", "B")) = Some {[ "r"; "q" ]}.
Proof. apply (bool_decide_unpack _). by vm_compute. Qed.
(** without two-sidedness the claim fails: a source reaction leaves no arc and is lost *)
Definition ex_sg_source : net := mk_net [] [(None, "r", [], [("A", 1%Z)])] [].
Example ex_sg_two_sided_needed :
  edges (species_graph_to_hypergraph pick_first "r" true (hypergraph_to_species_graph true ex_sg_source)).1 = ∅ ∧
  size (edges ex_sg_source) = 1%nat.
Proof. split; [apply (bool_decide_unpack _)|]; by vm_compute. Qed.
