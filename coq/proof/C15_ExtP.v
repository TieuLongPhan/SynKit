(** C15 — paths: completeness.  With max_paths=None every simple chain
    of neighbours from the source to the target within the hop limit is reported
    (soundness is in proof/C15_ExtQ.v). *)
From stdpp Require Import gmap strings sets.
From SK Require Import model.C15_Model model.C15_Ext proof.C15_Proof proof.C15_ExtQ.
Local Open Scope string_scope.

(** [ext rp0 rp j]: [rp] is reached from the queue entry [rp0] by [j] extension
    steps; no entry before [rp] ends in the target (such an entry is reported
    and not extended), [rp] does *)
Inductive ext (s : net) (tgt : string) : list string → list string → nat → Prop :=
| ext_0 rp : head rp = Some tgt → ext s tgt rp rp 0
| ext_S last rp0 n rp j :
    last ≠ tgt → nbr s last n → n ∉ last :: rp0 →
    ext s tgt (n :: last :: rp0) rp j → ext s tgt (last :: rp0) rp (S j).

Lemma extend_complete s last rp0 n nxt :
  Inv s → extend s (last :: rp0) = Some nxt → nbr s last n → n ∉ last :: rp0 → (n :: last :: rp0) ∈ nxt.
Proof.
  intros HI Hext Hn Hnin. unfold extend in Hext.
  pose proof (neighbors_spec s last HI) as HN. destruct (neighbors s last) as [er|N]; [done|].
  destruct HN as [_ HN]. injection Hext as <-. apply elem_of_list_fmap. exists n. split; [done|].
  apply elem_of_list_filter. split; [done|]. by apply elem_of_ssort, elem_of_elements, HN.
Qed.

Lemma bfs_complete s tgt : ∀ k level out,
  Inv s → bfs k s tgt level = Some out →
  ∀ rp0 rp j, rp0 ∈ level → ext s tgt rp0 rp j → (j < k)%nat → rp ∈ out.
Proof.
  induction k as [|k IH]; intros level out HI; cbn [bfs]; [intros _ ? ? ? _ _ ?; lia|].
  destruct (mapM _ _) as [nxt|] eqn:Hm; [|done].
  destruct (bfs k s tgt (concat nxt)) as [rest|] eqn:Hb; [|done]. intros [= <-] rp0 rp j Hin Hext Hj.
  apply elem_of_app. destruct Hext as [rp Hh|last rp0 n rp j Hne Hn Hnin Hext].
  - left. apply elem_of_list_filter. done.
  - right. eapply (IH _ _ HI Hb (n :: last :: rp0)); [|exact Hext|lia].
    assert (Hopen : (last :: rp0) ∈ filter (λ rp, head rp ≠ Some tgt) level).
    { apply elem_of_list_filter. split; [|done]. cbn. congruence. }
    apply mapM_Some in Hm. apply elem_of_list_lookup in Hopen as [i Hi].
    destruct (Forall2_lookup_l _ _ _ _ _ Hm Hi) as (l & Hl & Hextend).
    apply elem_of_list_In, in_concat. exists l. split; [by eapply elem_of_list_In, elem_of_list_lookup_2|].
    by apply elem_of_list_In, (extend_complete s last rp0 n l).
Qed.

Lemma rpath_suffix s src pre : ∀ suf, rpath s src (pre ++ suf) → suf ≠ [] → rpath s src suf.
Proof.
  induction pre as [|a pre IH]; intros suf H Hne; [done|]. apply IH; [|done].
  cbn in H. remember (a :: pre ++ suf) as l eqn:El. destruct H as [|n last rp H1 H2 H3].
  - injection El as _ El. symmetry in El. apply app_eq_nil in El as [_ ->]. done.
  - injection El as _ El. by rewrite <- El.
Qed.

Lemma rpath_ext s src tgt : ∀ pre suf,
  rpath s src (pre ++ suf) → suf ≠ [] → head (pre ++ suf) = Some tgt →
  ext s tgt suf (pre ++ suf) (length pre).
Proof.
  induction pre as [|n pre IH] using rev_ind; intros suf Hrp Hne Hh.
  - by constructor.
  - rewrite <- (assoc_L (++)) in *. cbn [app] in *. rewrite app_length. cbn. rewrite Nat.add_1_r.
    destruct suf as [|last rp0]; [done|].
    pose proof (rpath_suffix s src pre (n :: last :: rp0) Hrp) as Hsuf.
    specialize (Hsuf ltac:(done)). inversion Hsuf as [|n' last' rp' H1 H2 H3]; subst.
    apply (ext_S s tgt last rp0 n); [| done | done | by apply IH].
    (* last is not the target: the target is the head of the whole (duplicate-free) path *)
    intros ->. pose proof (rpath_NoDup _ _ _ Hrp) as Hnd.
    destruct pre as [|a pre]; cbn in Hh.
    + injection Hh as ->. cbn in Hnd. apply NoDup_cons in Hnd as [Hnd _]. apply Hnd. by left.
    + injection Hh as ->. cbn in Hnd. apply NoDup_cons in Hnd as [Hnd _].
      apply Hnd. rewrite elem_of_app. right. by right; left.
Qed.

Lemma rpath_species s src rp : Inv s → src ∈ species s → rpath s src rp → ∀ x, x ∈ rp → x ∈ species s.
Proof.
  intros HI Hs H. induction H as [|n last rp H IH Hn Hnin]; intros x Hx.
  - by apply elem_of_list_singleton in Hx as ->.
  - apply elem_of_cons in Hx as [->|Hx]; [by eapply nbr_species|by apply IH].
Qed.

Lemma paths_complete s a b h ps rp :
  Inv s → paths s a b h None = inr ps →
  rpath s a rp → head rp = Some b → (Z.of_nat (length rp) ≤ h + 1)%Z → reverse rp ∈ ps.
Proof.
  intros HI. unfold paths. destruct (decide _) as [[Ha Hb]|]; [|done].
  destruct (bfs _ s b [[a]]) as [out|] eqn:Hbfs; [|done]. intros [= <-] Hrp Hh Hlen.
  apply elem_of_list_fmap. exists rp. split; [done|].
  assert (Hsz : (length rp ≤ size (species s))%nat).
  { change (size (species s)) with (length (elements (species s))). apply submseteq_length, NoDup_submseteq; [by eapply rpath_NoDup|].
    intros x Hx. apply elem_of_elements. exact (rpath_species s a rp HI Ha Hrp x Hx). }
  assert (Hpos : (0 < length rp)%nat) by (destruct rp; [done|cbn; lia]).
  assert (Hsplit : ∃ pre, rp = (pre ++ [a])%list).
  { pose proof (rpath_last _ _ _ Hrp) as Hl. apply last_Some in Hl as [pre ->]. eauto. }
  destruct Hsplit as [pre ->].
  eapply (bfs_complete s b _ _ _ HI Hbfs [a] (pre ++ [a]) (length pre)); [by left|by apply (rpath_ext s a b)|].
  rewrite app_length in *. cbn in *. destruct (h <? 0)%Z eqn:E; [apply Z.ltb_lt in E; lia|]. apply Z.ltb_ge in E.
  destruct (size (species s)); lia.
Qed.
