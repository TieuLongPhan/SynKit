(** C05 — a clause that the code (kept as it is) violates on the explicit-hydrogen path, with its witness.
    When the pattern keeps explicit X-H bonds (implicit_temp=True with explicit hydrogens in the template), _glue_graph
    re-matches the explicit pattern on the hydrogen-expanded substrate WITH THE STRATEGY AGAIN; for BACKTRACK the
    fallback to the exhaustive search is therefore re-decided per kept match.  Here (Data/Testcase reaction 47, centre
    template, forwards on its own reactants, implicit mode): the component-aware search keeps 3 matches, the re-match of
    the first finds nothing component-aware (the expansion lowered the hydrogen count of the mapped acid oxygen below the
    pattern's implicit count), BACKTRACK falls back for that match alone and glues two placements inside ONE molecule:
    4 glued graphs against the component-aware 2, although the component-aware result is not empty. *)
From Coq Require Import List ZArith.
From SK Require Import lib.LGraph model.C03_Model model.C05_Model proof.C05_Pipe.
Import ListNotations.

(* the cap of these examples: the engine's default (no embed_threshold given) *)
#[local] Instance default_thr : Thr := thr_of None.

Definition bx_host : hostg := (LG [(1%N, (NA 67%N false (3)%Z (0)%Z [79%N])); (2%N, (NA 79%N false (0)%Z (0)%Z [67%N; 67%N])); (3%N, (NA 67%N true (0)%Z (0)%Z [67%N; 67%N; 79%N])); (4%N, (NA 67%N true (1)%Z (0)%Z [67%N; 67%N])); (5%N, (NA 67%N true (1)%Z (0)%Z [67%N; 67%N])); (6%N, (NA 67%N true (1)%Z (0)%Z [67%N; 67%N])); (7%N, (NA 67%N true (1)%Z (0)%Z [67%N; 67%N])); (8%N, (NA 67%N true (0)%Z (0)%Z [67%N; 67%N; 67%N])); (9%N, (NA 67%N false (0)%Z (0)%Z [67%N; 67%N; 67%N; 79%N])); (10%N, (NA 79%N false (1)%Z (0)%Z [67%N])); (11%N, (NA 67%N false (1)%Z (0)%Z [67%N; 67%N; 79%N])); (12%N, (NA 79%N false (1)%Z (0)%Z [67%N])); (13%N, (NA 67%N false (2)%Z (0)%Z [67%N; 67%N])); (14%N, (NA 67%N false (0)%Z (0)%Z [67%N; 67%N; 67%N; 67%N])); (15%N, (NA 67%N true (0)%Z (0)%Z [67%N; 67%N; 67%N])); (16%N, (NA 67%N true (1)%Z (0)%Z [67%N; 67%N])); (17%N, (NA 67%N true (1)%Z (0)%Z [67%N; 67%N])); (18%N, (NA 67%N true (1)%Z (0)%Z [67%N; 67%N])); (19%N, (NA 67%N true (1)%Z (0)%Z [67%N; 67%N])); (20%N, (NA 67%N true (1)%Z (0)%Z [67%N; 67%N])); (21%N, (NA 67%N true (0)%Z (0)%Z [67%N; 67%N; 67%N])); (22%N, (NA 67%N true (1)%Z (0)%Z [67%N; 67%N])); (23%N, (NA 67%N true (1)%Z (0)%Z [67%N; 67%N])); (24%N, (NA 67%N true (1)%Z (0)%Z [67%N; 67%N])); (25%N, (NA 67%N true (1)%Z (0)%Z [67%N; 67%N])); (26%N, (NA 67%N true (1)%Z (0)%Z [67%N; 67%N])); (27%N, (NA 67%N false (1)%Z (0)%Z [67%N; 67%N; 67%N])); (28%N, (NA 67%N false (2)%Z (0)%Z [67%N; 78%N])); (29%N, (NA 78%N false (1)%Z (0)%Z [67%N; 67%N])); (30%N, (NA 67%N false (2)%Z (0)%Z [67%N; 78%N])); (31%N, (NA 67%N false (1)%Z (0)%Z [67%N; 67%N; 67%N])); (32%N, (NA 79%N false (0)%Z (0)%Z [67%N])); (33%N, (NA 67%N false (0)%Z (0)%Z [67%N; 79%N; 79%N])); (34%N, (NA 79%N false (1)%Z (0)%Z [67%N])); (35%N, (NA 67%N false (2)%Z (0)%Z [67%N; 67%N])); (36%N, (NA 67%N true (0)%Z (0)%Z [67%N; 67%N; 67%N])); (37%N, (NA 67%N true (1)%Z (0)%Z [67%N; 78%N])); (38%N, (NA 78%N true (1)%Z (0)%Z [67%N; 67%N])); (39%N, (NA 67%N true (0)%Z (0)%Z [67%N; 67%N; 78%N])); (40%N, (NA 67%N true (1)%Z (0)%Z [67%N; 67%N])); (41%N, (NA 67%N true (1)%Z (0)%Z [67%N; 67%N])); (42%N, (NA 67%N true (1)%Z (0)%Z [67%N; 67%N])); (43%N, (NA 67%N true (1)%Z (0)%Z [67%N; 67%N])); (44%N, (NA 67%N true (0)%Z (0)%Z [67%N; 67%N; 67%N]))] [(1%N, 2%N, (2)%Z); (2%N, 3%N, (2)%Z); (3%N, 4%N, (3)%Z); (3%N, 8%N, (3)%Z); (4%N, 5%N, (3)%Z); (5%N, 6%N, (3)%Z); (6%N, 7%N, (3)%Z); (7%N, 8%N, (3)%Z); (8%N, 9%N, (2)%Z); (9%N, 10%N, (2)%Z); (9%N, 11%N, (2)%Z); (9%N, 31%N, (2)%Z); (11%N, 12%N, (2)%Z); (11%N, 13%N, (2)%Z); (13%N, 14%N, (2)%Z); (14%N, 15%N, (2)%Z); (14%N, 21%N, (2)%Z); (14%N, 27%N, (2)%Z); (15%N, 16%N, (3)%Z); (15%N, 20%N, (3)%Z); (16%N, 17%N, (3)%Z); (17%N, 18%N, (3)%Z); (18%N, 19%N, (3)%Z); (19%N, 20%N, (3)%Z); (21%N, 22%N, (3)%Z); (21%N, 26%N, (3)%Z); (22%N, 23%N, (3)%Z); (23%N, 24%N, (3)%Z); (24%N, 25%N, (3)%Z); (25%N, 26%N, (3)%Z); (27%N, 28%N, (2)%Z); (27%N, 31%N, (2)%Z); (28%N, 29%N, (2)%Z); (29%N, 30%N, (2)%Z); (30%N, 31%N, (2)%Z); (32%N, 33%N, (4)%Z); (33%N, 34%N, (2)%Z); (33%N, 35%N, (2)%Z); (35%N, 36%N, (2)%Z); (36%N, 37%N, (3)%Z); (36%N, 44%N, (3)%Z); (37%N, 38%N, (3)%Z); (38%N, 39%N, (3)%Z); (39%N, 40%N, (3)%Z); (39%N, 44%N, (3)%Z); (40%N, 41%N, (3)%Z); (41%N, 42%N, (3)%Z); (42%N, 43%N, (3)%Z); (43%N, 44%N, (3)%Z)]).
Definition bx_tpl : its := (LG [(30%N, IN (NA 78%N false (0)%Z (0)%Z [67%N; 67%N; 72%N]) (NA 78%N false (0)%Z (0)%Z [67%N; 67%N; 67%N]) 0%Z None); (34%N, IN (NA 67%N false (0)%Z (0)%Z [67%N; 79%N; 79%N]) (NA 67%N false (0)%Z (0)%Z [67%N; 78%N; 79%N]) 0%Z None); (31%N, IN (NA 72%N false (0)%Z (0)%Z [78%N]) (NA 72%N false (0)%Z (0)%Z [79%N]) 0%Z None); (35%N, IN (NA 79%N false (1)%Z (0)%Z [67%N]) (NA 79%N false (1)%Z (0)%Z [72%N]) 0%Z None)] [(30%N, 34%N, ((0)%Z, (2)%Z, (-2)%Z)); (30%N, 31%N, ((2)%Z, (0)%Z, (2)%Z)); (34%N, 35%N, ((2)%Z, (0)%Z, (2)%Z)); (31%N, 35%N, ((0)%Z, (2)%Z, (-2)%Z))]).

Definition bx_p : prepared :=
  match prepare false true bx_tpl with Some p => p | None => Prep (LG [] []) (LG [] []) (LG [] []) false (LG [] []) end.

Lemma bt_explicit_path_refuted :
  exists (host : hostg) (p : prepared),
    p_flag p = true /\ raw_of 1%N host p <> [] /\
    length (glued_of 1%N host p) = 2%nat /\ length (glued_of 2%N host p) = 4%nat.
Proof.
  exists bx_host, bx_p.
  (* one evaluation: both strategies read their glued graphs off the same re-match of each kept match *)
  assert (E : let raw := raw_of 1%N bx_host bx_p in
              let rs := map (rematch bx_host (p_rc bx_p) (p_l bx_p)) (prune (p_rc bx_p) raw) in
              p_flag bx_p = true /\ raw <> [] /\ length (flat_map fst rs) = 2%nat /\ length (flat_map snd rs) = 4%nat).
  { vm_compute. split; [reflexivity|]. split; [discriminate|]. split; reflexivity. }
  cbv zeta in E. destruct E as (F & R & E1 & E2).
  destruct (glued_comp_bt_explicit bx_host bx_p F R) as [G1 G2].
  rewrite G1, G2. exact (conj F (conj R (conj E1 E2))).
Qed.
