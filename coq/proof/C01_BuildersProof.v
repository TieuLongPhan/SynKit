(** C01 — the legacy builders of MolToGraph (model/C01_Builders.v) *)
From Coq Require Import List NArith ZArith Bool Lia Arith.
From SK Require Import lib.LGraph lib.C01_GraphLemmas model.C01_Model model.C02_Model model.C01_String model.C01_DecRaw model.C01_Builders
  proof.C01_Proof proof.C01_StringProof.
Import ListNotations.

(** * _create_detailed_graph = transform: no node id is ever 0, so `if b and e:` never skips a bond *)
Lemma atom_id_nonzero use i a : atom_id use i a <> 0%N.
Proof.
  unfold atom_id. destruct (use && negb (N.eqb (ra_map a) 0)) eqn:E; [|lia].
  apply andb_true_iff in E. destruct E as [_ E]. apply negb_true_iff, N.eqb_neq in E. exact E.
Qed.

Lemma m2g_atom_ix_nonzero drop use st ia :
  (forall j n, In (j, n) (snd st) -> n <> 0%N) -> forall j n, In (j, n) (snd (m2g_atom drop use st ia)) -> n <> 0%N.
Proof.
  intros H j n I. destruct ia as [i a]. unfold m2g_atom in I. destruct (drop && N.eqb (ra_map a) 0); [apply (H j n I)|].
  cbn [snd] in I. apply in_app_iff in I. destruct I as [I|[I|[]]]; [apply (H j n I)|]. inversion I; subst. apply atom_id_nonzero.
Qed.

Lemma fold_ix_nonzero drop use l : forall st,
  (forall j n, In (j, n) (snd st) -> n <> 0%N) -> forall j n, In (j, n) (snd (fold_left (m2g_atom drop use) l st)) -> n <> 0%N.
Proof.
  induction l as [|ia l IH]; intros st H; [exact H|]. cbn [fold_left]. apply IH. apply m2g_atom_ix_nonzero. exact H.
Qed.

Lemma lookup_idx_in i ix n : lookup_idx i ix = Some n -> In (i, n) ix.
Proof.
  induction ix as [|[j m] r IH]; cbn; [discriminate|]. destruct (Nat.eqb_spec i j) as [->|]; [intros E; inversion E; left; reflexivity|].
  intros E. right. apply IH. exact E.
Qed.

Lemma bond_d_eq ix : (forall j n, In (j, n) ix -> n <> 0%N) -> forall es b, m2g_bond_d ix es b = m2g_bond ix es b.
Proof.
  intros H es [[bi ei] o]. unfold m2g_bond_d, m2g_bond.
  destruct (lookup_idx bi ix) as [u|] eqn:Eu; [|reflexivity]. destruct (lookup_idx ei ix) as [v|] eqn:Ev; [|reflexivity].
  apply lookup_idx_in in Eu, Ev. apply H in Eu, Ev.
  destruct (N.eqb_spec u 0); [contradiction|]. destruct (N.eqb_spec v 0); [contradiction|]. reflexivity.
Qed.

(** C01_detailed_builder *)
Theorem detailed_is_transform drop use m : detailed_graph drop use m = mol_to_graph drop use m.
Proof.
  unfold detailed_graph, mol_to_graph. destruct (drop && negb use); [reflexivity|]. f_equal. f_equal.
  set (st := fold_left (m2g_atom drop use) (enumerate (rm_atoms m)) ([], [])).
  assert (forall j n, In (j, n) (snd st) -> n <> 0%N) as H by (apply fold_ix_nonzero; intros j n []).
  generalize (@nil (N * N * Z)). induction (rm_bonds m) as [|b bs IH]; intros acc; [reflexivity|].
  cbn [fold_left]. rewrite (bond_d_eq (snd st) H). apply IH.
Qed.

(** * _create_light_weight_graph without bonds is the node loop of transform (with bonds: proof/C01_LightProof.v) *)
Lemma light_no_bonds drop use (m : rmol) : rm_bonds m = [] ->
  light_graph drop use m = option_map some_nodes (mol_to_graph drop use m).
Proof.
  intros E. unfold light_graph, mol_to_graph. rewrite E. destruct (drop && negb use); [reflexivity|]. cbn [option_map fold_left]. f_equal.
  unfold some_nodes. cbn [gnodes gedges].
  assert (forall l (ns : list (N * gnode)) ix,
            fold_left (lw_atom drop use (rm_atoms m) []) l (map (fun p => (fst p, Some (snd p))) ns, []) =
            (map (fun p => (fst p, Some (snd p))) (fst (fold_left (m2g_atom drop use) l (ns, ix))), [])) as K.
  { induction l as [|[i a] l IH]; intros ns ix; [reflexivity|]. cbn [fold_left]. unfold lw_atom at 2, m2g_atom at 2. cbn [atom_bonds flat_map fold_left fst snd].
    destruct (drop && N.eqb (ra_map a) 0); [apply IH|].
    assert (upsert (atom_id use i a) (Some (atom_node a)) (map (fun p : N * gnode => (fst p, Some (snd p))) ns) =
            map (fun p : N * gnode => (fst p, Some (snd p))) (upsert (atom_id use i a) (atom_node a) ns)) as ->.
    { generalize (atom_id use i a) as k. intros k. induction ns as [|[k' v'] r IHr]; [reflexivity|]. cbn [map upsert fst snd].
      destruct (N.eqb k k'); cbn [map fst snd]; [reflexivity|]. rewrite IHr. reflexivity. }
    apply IH. }
  specialize (K (enumerate (rm_atoms m)) [] []). cbn [map] in K. rewrite K. reflexivity.
Qed.

Example C01_builders_nonvacuous :
  let m := RM [RA 70%N false 3%Z 0%Z 1%N [82%N]; RA 82%N false 1%Z 0%Z 0%N [70%N]] [(0%nat, 1%nat, 2%Z)] in
  detailed_graph false true m = mol_to_graph false true m /\
  option_map (fun g : ogl => (map fst (gnodes g), gedges g)) (light_graph false true m) = Some ([1; 2]%N, [(1%N, 2%N, 2%Z)]) /\
  option_map (fun g : mgraph => (map fst (gnodes g), gedges g)) (mol_to_graph false true m) = Some ([1; 2]%N, [(1%N, 2%N, 2%Z)]) /\
  light_graph true true m = Some (LG [(1%N, Some (atom_node (RA 70%N false 3%Z 0%Z 1%N [82%N])))] []).
Proof. repeat split; reflexivity. Qed.
