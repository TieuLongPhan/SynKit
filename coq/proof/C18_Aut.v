(** C18 — structure-preserving self-maps: an automorphism re-presents the view ([aut_geq]); self-maps preserving a node and a
    pair invariant ([pres_maps]) contain the identity and are closed under composition and inverses; two node sequences with
    position-wise equal invariants define one ([seq_pres], [seq_aut]). *)
From Coq Require Import List NArith ZArith Bool Arith Lia Permutation.
From SK Require Import lib.IRSortKeys lib.IRCore lib.IRSearch lib.C18_IRValid model.C18_Model
  proof.C18_Spec proof.C18_Graph.
Import ListNotations.

Lemma kind_of_l_mem l v : In v (map fst l) -> In (v, kind_of_l l v) l.
Proof.
  induction l as [|[u k] l IH]; simpl; intros H; [contradiction|].
  destruct (N.eqb_spec u v) as [->|Hne]; [left; auto|]. right. apply IH. destruct H; [congruence|auto].
Qed.

Lemma wf_nodup_nodes g : wf g -> NoDup (vnodes g).
Proof. intros (H & _). unfold node_ids in H. apply NoDup_map_inv in H. auto. Qed.
Lemma wf_nodup_arcs g : wf g -> NoDup (varcs g).
Proof. intros (_ & H & _). apply NoDup_map_inv in H. auto. Qed.

Theorem aut_geq g s : wf g -> is_aut g s -> geq (relabel s g) g.
Proof.
  intros Hw (Hinj & Hin & Hk & Ha).
  pose proof (wf_relabel s g Hw Hinj) as Hw'.
  split.
  - apply NoDup_Permutation_bis.
    + apply wf_nodup_nodes. auto.
    + unfold relabel; simpl. rewrite map_length. auto.
    + intros x Hx. unfold relabel in Hx; simpl in Hx. apply in_map_iff in Hx. destruct Hx as ([v k] & <- & I). simpl.
      assert (Iv : In v (node_ids g)) by (apply in_map_iff; exists (v, k); auto).
      assert (Ek : kind_of g v = k) by (apply kind_of_l_in; auto; apply Hw).
      rewrite <- Ek, <- (Hk v Iv). apply kind_of_l_mem. apply Hin. auto.
  - apply NoDup_Permutation_bis.
    + apply wf_nodup_arcs. auto.
    + unfold relabel; simpl. rewrite map_length. auto.
    + intros x Hx. unfold relabel in Hx; simpl in Hx. apply in_map_iff in Hx. destruct Hx as (e & <- & I).
      destruct Hw as (_ & Hnd & He). destruct (He _ I) as [Is Id].
      apply find_arc_l_some. fold (find_arc g (s (asrc e)) (s (adst e))). rewrite Ha; auto.
      apply find_arc_l_in; auto. destruct e as [[? ?] ?]. exact I.
Qed.

(* ---------------- the map sending one sequence to another ---------------- *)
Fixpoint idx (v : N) (l : list N) : nat :=
  match l with [] => 0 | x :: l' => if N.eqb x v then 0 else S (idx v l') end.
Lemma idx_in v l : In v l -> idx v l < length l /\ nth (idx v l) l 0%N = v.
Proof.
  induction l as [|x l IH]; simpl; intros H; [contradiction|].
  destruct (N.eqb_spec x v) as [->|Hne]; [split; [lia|auto]|].
  destruct H as [H|H]; [congruence|]. destruct (IH H). split; [lia|auto].
Qed.
Lemma idx_nth l : NoDup l -> forall i, i < length l -> idx (nth i l 0%N) l = i.
Proof.
  intros Hnd i Hi. assert (In (nth i l 0%N) l) by (apply nth_In; auto).
  destruct (idx_in _ _ H) as [H1 H2]. apply (proj1 (NoDup_nth l 0%N) Hnd); auto.
Qed.

Definition seqmap (r r' : list N) (v : N) : N := nth (idx v r) r' v.
Lemma seqmap_nth r r' i : NoDup r -> length r = length r' -> i < length r -> seqmap r r' (nth i r 0%N) = nth i r' 0%N.
Proof. intros Hnd Hl Hi. unfold seqmap. rewrite idx_nth; auto. apply nth_indep. lia. Qed.
Lemma map_seqmap r r' : NoDup r -> length r = length r' -> map (seqmap r r') r = r'.
Proof.
  intros Hnd Hl. apply (nth_ext _ _ 0%N 0%N); [rewrite map_length; auto|].
  intros i Hi. rewrite map_length in Hi.
  rewrite (nth_indep _ 0%N (seqmap r r' 0%N)) by (rewrite map_length; auto).
  rewrite map_nth. apply seqmap_nth; auto.
Qed.

(** a self-map of the nodes, extended by the identity outside them *)
Definition ext_on (nodes : list N) (s : N -> N) (v : N) : N := if memN v nodes then s v else v.
Lemma ext_on_in nodes s v : In v nodes -> ext_on nodes s v = s v.
Proof. intros H. unfold ext_on. apply memN_spec in H. rewrite H. reflexivity. Qed.
Lemma ext_on_out nodes s v : ~ In v nodes -> ext_on nodes s v = v.
Proof. intros H. unfold ext_on. destruct (memN v nodes) eqn:E; auto. apply memN_spec in E. contradiction. Qed.
Lemma ext_on_inj nodes s : inj_on s nodes -> (forall v, In v nodes -> In (s v) nodes) ->
  forall x y, ext_on nodes s x = ext_on nodes s y -> x = y.
Proof.
  intros Hinj Hin x y. unfold ext_on.
  destruct (memN x nodes) eqn:Ex, (memN y nodes) eqn:Ey; intros E; auto.
  - apply memN_spec in Ex, Ey. auto.
  - apply memN_spec in Ex. apply Hin in Ex. rewrite E in Ex. apply memN_spec in Ex. congruence.
  - apply memN_spec in Ey. apply Hin in Ey. rewrite <- E in Ey. apply memN_spec in Ey. congruence.
Qed.

(** Self-maps of a node list that are injective on it, map it into itself and preserve a node invariant [i1] and a pair
    invariant [i2].  [is_aut g] is the case (kind_of g, find_arc g); the self-maps preserving a selection of attributes are
    another.  They contain the identity and are closed under composition and under inverses on the nodes. *)
Section PresMaps.
Variables (T1 T2 : Type) (nodes : list N) (i1 : N -> T1) (i2 : N -> N -> T2).
Definition pres_maps (s : N -> N) : Prop :=
  inj_on s nodes /\ (forall v, In v nodes -> In (s v) nodes) /\
  (forall v, In v nodes -> i1 (s v) = i1 v) /\
  (forall u v, In u nodes -> In v nodes -> i2 (s u) (s v) = i2 u v).
Hypothesis Hnd : NoDup nodes.

Lemma pres_id : pres_maps (fun v => v).
Proof. split; [intros x y _ _ E; exact E|repeat split; auto]. Qed.
Lemma pres_comp s t : pres_maps s -> pres_maps t -> pres_maps (fun v => t (s v)).
Proof.
  intros (I1 & M1 & K1 & A1) (I2 & M2 & K2 & A2). split; [|split; [|split]].
  - intros x y Hx Hy E. apply I1; [exact Hx|exact Hy|]. apply I2; [apply M1; exact Hx|apply M1; exact Hy|exact E].
  - intros v Hv. apply M2. apply M1. exact Hv.
  - intros v Hv. rewrite K2; auto.
  - intros u v Hu Hv. rewrite A2; auto.
Qed.
Lemma pres_perm s : pres_maps s -> Permutation (map s nodes) nodes.
Proof.
  intros (I1 & M1 & _). apply NoDup_Permutation_bis.
  - apply NoDup_map_inj_on; auto.
  - rewrite map_length. auto.
  - intros z Hz. apply in_map_iff in Hz. destruct Hz as (x & <- & Hx). auto.
Qed.
Lemma pres_surj s : pres_maps s -> forall y, In y nodes -> exists x, In x nodes /\ s x = y.
Proof.
  intros Hs y Hy. apply (Permutation_in _ (Permutation_sym (pres_perm s Hs))) in Hy.
  apply in_map_iff in Hy. destruct Hy as (x & E & Hx). eauto.
Qed.
Lemma pres_inv s : pres_maps s -> exists t, pres_maps t /\ forall v, In v nodes -> t (s v) = v.
Proof.
  intros Hs. pose proof Hs as (I1 & M1 & K1 & A1).
  exists (finv s nodes).
  assert (L : forall v, In v nodes -> finv s nodes (s v) = v) by (intros; apply finv_left; auto).
  split; auto. split; [|split; [|split]].
  - intros x y Hx Hy E. destruct (pres_surj s Hs x Hx) as (a & Ha & <-). destruct (pres_surj s Hs y Hy) as (b & Hb & <-).
    rewrite !L in E; auto. subst. auto.
  - intros y Hy. destruct (pres_surj s Hs y Hy) as (a & Ha & <-). rewrite L; auto.
  - intros y Hy. destruct (pres_surj s Hs y Hy) as (a & Ha & <-). rewrite L; auto. symmetry. auto.
  - intros x y Hx Hy. destruct (pres_surj s Hs x Hx) as (a & Ha & <-). destruct (pres_surj s Hs y Hy) as (b & Hb & <-).
    rewrite !L; auto. symmetry. auto.
Qed.

Lemma seq_pres r r' : NoDup r -> NoDup r' -> Permutation r nodes -> Permutation r' nodes ->
  (forall i, i < length r -> i1 (nth i r 0%N) = i1 (nth i r' 0%N)) ->
  (forall i j, i < length r -> j < length r -> i2 (nth i r 0%N) (nth j r 0%N) = i2 (nth i r' 0%N) (nth j r' 0%N)) ->
  pres_maps (seqmap r r').
Proof.
  intros Hndr Hnd' Hp Hp' Hk Ha.
  assert (Hl : length r = length r') by (rewrite (Permutation_length Hp), (Permutation_length Hp'); auto).
  assert (Hpos : forall v, In v nodes -> exists i, i < length r /\ v = nth i r 0%N).
  { intros v Hv. apply (Permutation_in _ (Permutation_sym Hp)) in Hv. destruct (idx_in _ _ Hv). eauto. }
  split; [|split; [|split]].
  - intros x y Hx Hy E. destruct (Hpos x Hx) as (i & Hi & ->). destruct (Hpos y Hy) as (j & Hj & ->).
    rewrite !seqmap_nth in E; auto. f_equal. apply (proj1 (NoDup_nth r' 0%N) Hnd'); auto; lia.
  - intros v Hv. destruct (Hpos v Hv) as (i & Hi & ->). rewrite seqmap_nth; auto.
    apply (Permutation_in _ Hp'). apply nth_In. lia.
  - intros v Hv. destruct (Hpos v Hv) as (i & Hi & ->). rewrite seqmap_nth; auto. symmetry. auto.
  - intros u v Hu Hv. destruct (Hpos u Hu) as (i & Hi & ->). destruct (Hpos v Hv) as (j & Hj & ->).
    rewrite !seqmap_nth; auto. symmetry. auto.
Qed.
End PresMaps.


(** [is_aut g] is [pres_maps] at the kinds and the arcs of [g] *)
Lemma is_aut_pres g s : is_aut g s <-> pres_maps _ _ (node_ids g) (kind_of g) (find_arc g) s.
Proof. reflexivity. Qed.

Theorem seq_aut g r r' : wf g -> NoDup r -> NoDup r' ->
  Permutation r (node_ids g) -> Permutation r' (node_ids g) ->
  (forall i, i < length r -> kind_of g (nth i r 0%N) = kind_of g (nth i r' 0%N)) ->
  (forall i j, i < length r -> j < length r ->
     find_arc g (nth i r 0%N) (nth j r 0%N) = find_arc g (nth i r' 0%N) (nth j r' 0%N)) ->
  is_aut g (seqmap r r').
Proof. intros _ Hr Hr' Hp Hp' Hk Ha. apply is_aut_pres. apply seq_pres; assumption. Qed.
