(** C10 — proofs: the hydrogen round trip and the heavy skeleton for h_to_explicit in EITHER mode
    (its=False / its=True, SynKit commit 61e730e: an ITS atom gets min(hcount, product-half hcount) hydrogens made explicit,
    both halves of typesGH are lowered, and with its=True every edge attribute is normalised at the end).
    The two loops are those of proof/C10_HRound.v; here: h_to_implicit commutes with any map on edge attributes, so that the
    final normalize_edge_orders can be pulled out of h_to_implicit. *)
From Coq Require Import String List NArith ZArith Bool Lia.
From SK Require Import lib.LGraph lib.StrJoin model.C10_Model model.C10_Rxn proof.C10_Views proof.C10_Build proof.C10_Copy
  proof.C10_Hydrogen proof.C10_HRound.
Import ListNotations.
Local Open Scope Z_scope.

(** * maps on edge attributes *)

Lemma normalize_emap (g : gr) : normalize_edge_orders g = emap norm_edge g.
Proof. reflexivity. Qed.
Lemma label_emap F (G : gr) n : label (emap F G) n = label G n.
Proof. reflexivity. Qed.
Lemma adj_emap F (G : gr) u v : adj (emap F G) u v = option_map F (adj G u v).
Proof.
  unfold adj, emap. simpl. induction (gedges G) as [|[[a b] x] r IH]; [reflexivity|].
  simpl map. rewrite !find_edge_cons, IH. destruct (pair_eqb a b u v); reflexivity.
Qed.
Lemma nbrs_emap F (G : gr) u : nbrs (emap F G) u = nbrs G u.
Proof.
  unfold nbrs, emap. simpl. induction (gedges G) as [|[[a b] x] r IH]; [reflexivity|]. simpl. rewrite IH. reflexivity.
Qed.
Lemma remove_node_emap F (G : gr) n : remove_node (emap F G) n = emap F (remove_node G n).
Proof.
  unfold remove_node, emap. simpl. f_equal.
  induction (gedges G) as [|[[a b] x] r IH]; [reflexivity|]. simpl. destruct (negb (N.eqb a n || N.eqb b n)); simpl; rewrite IH; reflexivity.
Qed.
Lemma emapf_eq F e : emapf F e = (fst e, F (snd e)).
Proof. destruct e as [[a b] x]. reflexivity. Qed.
Lemma copy_emap F (G : gr) : copy (emap F G) = emap F (copy G).
Proof. unfold copy, emap, edges_iter. simpl. rewrite !(map_ext _ _ (emapf_eq F)), edges_from_map_att. reflexivity. Qed.
Lemma fold_inc_emap F l : forall G : gr,
  fold_left (fun acc n => set_node acc n inc_h) l (emap F G) = emap F (fold_left (fun acc n => set_node acc n inc_h) l G).
Proof. induction l as [|n r IH]; intros G; [reflexivity|]. simpl. apply (IH (set_node G n inc_h)). Qed.
Lemma himp_step_emap F (G : gr) h : himp_step (emap F G) h = emap F (himp_step G h).
Proof.
  unfold himp_step. rewrite nbrs_emap.
  change (filter (fun n => negb (is_H (emap F G) n)) (nbrs G h)) with (filter (fun n => negb (is_H G n)) (nbrs G h)).
  destruct (filter (fun n => negb (is_H G n)) (nbrs G h)) as [|x r]; [reflexivity|].
  rewrite fold_inc_emap, remove_node_emap. reflexivity.
Qed.
Lemma fold_himp_emap F l : forall G : gr, fold_left himp_step l (emap F G) = emap F (fold_left himp_step l G).
Proof. induction l as [|n r IH]; intros G; [reflexivity|]. simpl. rewrite himp_step_emap. apply IH. Qed.
Theorem h_to_implicit_emap F (G : gr) : h_to_implicit (emap F G) = emap F (h_to_implicit G).
Proof.
  unfold h_to_implicit. cbv zeta. rewrite copy_emap.
  change (filter (is_H (emap F (copy G))) (node_ids (emap F (copy G)))) with (filter (is_H (copy G)) (node_ids (copy G))).
  apply fold_himp_emap.
Qed.

Definition cvi (its : bool) (a : natt) : Z := hexp_count its a.
Definition deci (its : bool) (c : Z) : natt -> natt := if its then dec_h_its c else dec_h c.
Definition updi (its : bool) (a : natt) : natt := if 0 <? cvi its a then deci its (cvi its a) a else a.

Lemma cvi_false a : cvi false a = cval a.
Proof. reflexivity. Qed.
Lemma updi_false a : updi false a = upd a.
Proof. reflexivity. Qed.

Lemma updi_lowered its a : updi its a = h_lowered_gen its a.
Proof. unfold updi, h_lowered_gen, deci, cvi. destruct its; reflexivity. Qed.

Lemma fin_graph_emap its G : fin_graph its G = emap (fin_edge its) G.
Proof.
  destruct its; [reflexivity|]. unfold fin_graph, emap, fin_edge. destruct G as [ns es]. simpl. f_equal.
  induction es as [|[[a b] x] r IH]; [reflexivity|]. simpl. rewrite <- IH. reflexivity.
Qed.

(** * the heavy skeleton, either mode *)
Theorem h_explicit_skeleton_gen (g : gr) (nodes : option (list N)) (its : bool) : gwfb g = true ->
  let E := h_to_explicit g nodes its in
  (forall n a, label g n = Some a -> label E n = Some (if mem n (exp_nodes g nodes) then h_lowered_gen its a else a)) /\
  (forall u v, In u (node_ids g) -> In v (node_ids g) -> adj E u v = option_map (fin_edge its) (adj g u v)) /\
  (forall h, In h (node_ids E) -> ~ In h (node_ids g) ->
     (max_id g < h)%N /\ label E h = Some H_att /\
     exists m, In m (node_ids g) /\ forall w, adj E h w = if N.eqb w m then Some (fin_edge its e_single) else None).
Proof.
  intros Hw. destruct (h_explicit_skeleton_core g nodes its (gwfb_gwf g Hw)) as (A & B & C). cbv zeta in *.
  rewrite h_to_explicit_loop, fin_graph_emap. split; [exact A|split].
  - intros u v Hu Hv. rewrite adj_emap, B by assumption. reflexivity.
  - intros h Hh Hnot. destruct (C h Hh Hnot) as (R & L & m & M & Am). split; [exact R|split; [exact L|]].
    exists m. split; [exact M|]. intros w. rewrite adj_emap, Am. destruct (N.eqb w m); reflexivity.
Qed.

(** * the round trip, either mode, on graphs whose hydrogen atoms are bare *)
Theorem h_roundtrip_bare (g : gr) (nodes : option (list N)) (its : bool) : gwfb g = true -> bare_H g ->
  let g' := h_to_implicit (h_to_explicit g nodes its) in
  node_ids g' = node_ids g /\
  (forall n a, label g n = Some a ->
     label g' n = Some (if mem n (exp_nodes g nodes) then h_restore_gen its a else a)) /\
  (forall u v, adj g' u v = option_map (fin_edge its) (adj g u v)).
Proof.
  intros Hw Hb. destruct (h_roundtrip_core g nodes its (gwfb_gwf g Hw) Hb) as (A & B & C). cbv zeta in *.
  rewrite h_to_explicit_loop, fin_graph_emap, h_to_implicit_emap. split; [exact A|split; [exact B|]].
  intros u v. rewrite adj_emap, C. reflexivity.
Qed.

Corollary h_roundtrip_gen (g : gr) (nodes : option (list N)) (its : bool) : gwfb g = true -> no_H g = true ->
  let g' := h_to_implicit (h_to_explicit g nodes its) in
  node_ids g' = node_ids g /\
  (forall n a, label g n = Some a ->
     label g' n = Some (if mem n (exp_nodes g nodes) then h_restore_gen its a else a)) /\
  (forall u v, adj g' u v = option_map (fin_edge its) (adj g u v)).
Proof. intros Hw Hh. apply h_roundtrip_bare; [exact Hw|apply no_H_bare, Hh]. Qed.

(** the whole-graph, ITS-mode instances *)
Corollary h_roundtrip_its (g : gr) : gwfb g = true -> no_H g = true ->
  let g' := h_to_implicit (h_to_explicit g None true) in
  node_ids g' = node_ids g /\
  (forall n a, label g n = Some a -> label g' n = Some (h_restore_gen true a)) /\
  (forall u v, adj g' u v = option_map norm_edge (adj g u v)).
Proof.
  intros Hw Hh. destruct (h_roundtrip_gen g None true Hw Hh) as (A & B & C). cbv zeta in *. split; [exact A|split; [|exact C]].
  intros n a La. rewrite (B n a La). simpl.
  assert (mem n (node_ids g) = true) as -> by (apply mem_spec, has_node_in, has_node_label; eauto). reflexivity.
Qed.

(** non-vacuity: an ITS atom with 3 hydrogens before and 2 after (one is lost in the reaction), bonded by a scalar-order bond *)
Definition ex_its_h : gr :=
  LG [(1%N, NA (Some (s2l "C")) (Some false) (Some 3) (Some 0) (Some 1) (Some ((s2l "C", false, 3, 0), (s2l "C", false, 2, 0))));
      (2%N, NA (Some (s2l "O")) (Some false) (Some 1) (Some 0) (Some 2) (Some ((s2l "O", false, 1, 0), (s2l "O", false, 1, 0))))]
     [(1%N, 2%N, EA (Some (OS 2)) None)].
Example h_roundtrip_its_ex :
  gwfb ex_its_h = true /\ no_H ex_its_h = true /\
  List.length (gnodes (h_to_explicit ex_its_h None true)) = 5%nat /\
  label (h_to_explicit ex_its_h None true) 1%N =
    Some (NA (Some (s2l "C")) (Some false) (Some 1) (Some 0) (Some 1) (Some ((s2l "C", false, 1, 0), (s2l "C", false, 0, 0)))) /\
  label (h_to_implicit (h_to_explicit ex_its_h None true)) 1%N =
    Some (NA (Some (s2l "C")) (Some false) (Some 3) (Some 0) (Some 1) (Some ((s2l "C", false, 1, 0), (s2l "C", false, 0, 0)))) /\
  adj (h_to_implicit (h_to_explicit ex_its_h None true)) 1%N 2%N = Some (EA (Some (OP 2 2)) (Some 0)).
Proof. vm_compute. repeat split. Qed.
