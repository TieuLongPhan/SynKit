(** C01 — capstone: for every pair of readings that passes the executable test of kind str-prem (so: for the 113 balanced
    quick cases and 340 of the 346 corpus reactions in the thorough tier), the conclusions of the graph-level theorems hold of
    the very values the correspondence compares with the implementation *)
From Coq Require Import List NArith ZArith Bool.
From SK Require Import lib.LGraph lib.C01_GraphLemmas model.C01_Model model.C02_Model model.C01_String model.C01_HBal model.C01_Prem
  proof.C01_Proof proof.C01_StringProof proof.C01_StringHyd proof.C01_StringHydExt proof.C01_StringPipe proof.C01_StringPipeH
  proof.C01_HBalProof proof.C01_HBalString proof.C01_PremProof.
Import ListNotations.
Local Open Scope Z_scope.

(** [one_parent] depends only on elements and bonds *)
Lemma one_parent_geq_sel (g g' : mgraph) : wf g -> wf g' -> geq_sel g' g -> one_parent g -> one_parent g'.
Proof.
  intros W W' E OP h Hh. pose proof (geq_sel_is_Hn g g' E) as EH. destruct E as [_ A].
  rewrite EH in Hh. specialize (OP h Hh).
  rewrite (filter_ext (fun m => negb (is_Hn g' m)) (fun m => negb (is_Hn g m))) by (intros m; rewrite EH; reflexivity).
  rewrite (filter_length_same_members (fun m => negb (is_Hn g m)) (nbrs g' h) (nbrs g h)); [exact OP| | |].
  - apply nbrs_nodup. exact W'.
  - apply nbrs_nodup. exact W.
  - intros x. rewrite !in_nbrs, A. reflexivity.
Qed.

Theorem capstone (mr mp : rmol) : reaction_okb mr mp = true ->
  let G := graph_of mr in let H := graph_of mp in
  let I := its_construct G H in
  rsmi_to_its_m mr mp = Some I /\ wf I /\
  geq_sel (fst (its_decompose I)) G /\ geq_sel (snd (its_decompose I)) H /\
  amap_id (fst (its_decompose I)) /\ amap_id (snd (its_decompose I)) /\
  h_total (fst (its_to_graphs I)) = h_total G /\ h_total (snd (its_to_graphs I)) = h_total H /\
  (exists wr wp, its_to_wmols I = Some (wr, wp)).
Proof.
  intros E G H I. destruct (reaction_okb_sound mr mp E) as (Or & Op & WG & WH & S & PG & PH & OG & OH).
  fold G in WG, S, PG, OG. fold H in WH, S, PH, OH.
  destruct (roundtrip G H WG WH S PG PH) as (Rg & Ag & Rh & Ah).
  pose proof (its_wf G H WG WH) as WI. fold I in Rg, Ag, Rh, Ah, WI.
  assert (wf (fst (its_decompose I)) /\ wf (snd (its_decompose I))) as [Wg Wh] by (split; apply dec_wf; exact WI).
  split; [apply rsmi_to_its_m_closed; assumption|].
  split; [exact WI|]. split; [exact Rg|]. split; [exact Rh|]. split; [exact Ag|]. split; [exact Ah|].
  destruct (its_to_graphs_balance I WI) as [Bg Bh].
  split; [|split].
  - rewrite (Bg (one_parent_geq_sel G _ WG Wg Rg OG)). apply h_total_geq_sel; assumption.
  - rewrite (Bh (one_parent_geq_sel H _ WH Wh Rh OH)). apply h_total_geq_sel; assumption.
  - unfold its_to_wmols.
    destruct (graph_to_wmol_spec (fst (its_to_graphs I))) as [T1 _]. destruct (graph_to_wmol_spec (snd (its_to_graphs I))) as [T2 _].
    unfold its_to_graphs in *. cbn [fst snd] in *.
    destruct (graph_to_wmol (smi_graph (fst (its_decompose I)) (hlist I))) as [wr|]; [|exfalso; apply T1; [apply smi_graph_wf; exact Wg|reflexivity]].
    destruct (graph_to_wmol (smi_graph (snd (its_decompose I)) (hlist I))) as [wp|]; [|exfalso; apply T2; [apply smi_graph_wf; exact Wh|reflexivity]].
    eauto.
Qed.

Example C01_capstone_nonvacuous : reaction_okb C01_RenumWrite.ex_hr C01_RenumWrite.ex_hp = true /\
  h_total (graph_of C01_RenumWrite.ex_hr) = 6 /\
  hlist (its_construct (graph_of C01_RenumWrite.ex_hr) (graph_of C01_RenumWrite.ex_hp)) <> [].
Proof. split; [vm_compute; reflexivity|]. split; [vm_compute; reflexivity|vm_compute; discriminate]. Qed.
