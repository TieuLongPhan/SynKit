(** C11 — automorphisms: the enumeration used by the model ([auts] = lib/Mono.v [monos], induced, G into G) is a
    duplicate-free listing of exactly the label-preserving automorphisms, which form a group (identity,
    composition, inverse); the count reported by [analyze] is the length of that listing and the reported orbits
    are exactly the classes of the relation "some listed automorphism maps u to v" (clauses 1 and 2).
    Stdlib lists. *)
From Coq Require Import List NArith Arith Bool Lia.
From SK Require Import lib.LGraph lib.Mono model.C11_Model.
Import ListNotations.

(** ---------- generic list facts ---------- *)
Lemma combine_map_pairs {X} (f : N -> X) (l : list N) : combine l (map f l) = map (fun u => (u, f u)) l.
Proof. induction l; simpl; congruence. Qed.

Lemma NoDup_map_inj_in {X Y} (f : X -> Y) (l : list X) x y :
  NoDup (map f l) -> In x l -> In y l -> f x = f y -> x = y.
Proof.
  induction l as [|a l IH]; simpl; [tauto|].
  intros Hnd Hx Hy E. inversion Hnd as [|? ? Hn Hnd']; subst.
  destruct Hx as [->|Hx], Hy as [->|Hy]; auto.
  - exfalso. apply Hn. rewrite E. apply in_map. exact Hy.
  - exfalso. apply Hn. rewrite <- E. apply in_map. exact Hx.
Qed.

Lemma inj_in_NoDup_map {X Y} (f : X -> Y) (l : list X) :
  NoDup l -> (forall x y, In x l -> In y l -> f x = f y -> x = y) -> NoDup (map f l).
Proof.
  induction 1 as [|a l Hn Hnd IH]; simpl; intros Hinj; [constructor|].
  constructor.
  - intros Hin. apply in_map_iff in Hin. destruct Hin as (y & E & Hy).
    apply Hn. rewrite (Hinj a y); auto.
  - apply IH. intros x y Hx Hy. apply Hinj; auto.
Qed.

Lemma assoc_combine_map (f : N -> N) (l : list N) u : In u l -> assoc u (combine l (map f l)) = Some (f u).
Proof.
  induction l as [|a l IH]; simpl; [tauto|].
  intros H. destruct (N.eqb_spec u a) as [->|Hne]; [reflexivity|].
  destruct H as [->|H]; [congruence | auto].
Qed.

Lemma assoc_not_in {V} u (l : list (N * V)) : ~ In u (map fst l) -> assoc u l = None.
Proof.
  induction l as [|[k v] l IH]; simpl; [reflexivity|].
  intros H. destruct (N.eqb_spec u k) as [->|Hne]; [exfalso; apply H; left; reflexivity|].
  apply IH. intros Hin. apply H. right. exact Hin.
Qed.

Lemma map_lookup_combine (ns hs : list N) :
  NoDup ns -> length hs = length ns ->
  map (fun u => match assoc u (combine ns hs) with Some h => h | None => u end) ns = hs.
Proof.
  revert hs. induction ns as [|n ns IH]; intros hs Hnd Hl; destruct hs as [|h hs]; try discriminate; [reflexivity|].
  simpl. rewrite N.eqb_refl. f_equal.
  inversion Hnd as [|? ? Hn Hnd']; subst.
  transitivity (map (fun u => match assoc u (combine ns hs) with Some h0 => h0 | None => u end) ns);
    [|apply IH; [exact Hnd' | simpl in Hl; lia]].
  apply map_ext_in. intros u Hu.
  destruct (N.eqb_spec u n) as [->|Hne]; [contradiction | reflexivity].
Qed.

Lemma filter_all {X} (f : X -> bool) l : (forall x, In x l -> f x = true) -> filter f l = l.
Proof.
  induction l as [|x r IH]; simpl; intros H; [reflexivity|].
  rewrite (H x (or_introl eq_refl)). f_equal. apply IH. intros y Hy. apply H. right. exact Hy.
Qed.

Lemma mem_reflect x l : reflect (In x l) (LGraph.mem x l).
Proof. apply iff_reflect. symmetry. apply LGraph.mem_spec. Qed.

Lemma oeqb_eq a b : oeqb a b = true <-> a = b.
Proof.
  destruct a, b; simpl; try (split; [discriminate | discriminate]); try tauto.
  rewrite N.eqb_eq. split; [intros ->; reflexivity | intros [= ->]; reflexivity].
Qed.
Lemma oeqb_refl a : oeqb a a = true.
Proof. apply oeqb_eq. reflexivity. Qed.

(** the shape of the model's lexicographic comparisons: first components by [<?] and [=?], then a test on the rest *)
Lemma lexN_spec (x y : N) (r : bool) :
  (if (x <? y)%N then true else if (x =? y)%N then r else false) = true <-> (x < y \/ (x = y /\ r = true))%N.
Proof.
  destruct (N.ltb_spec x y); [split; auto|]. destruct (N.eqb_spec x y).
  - split; [auto | intros [?|[_ ?]]; [lia | assumption]].
  - split; [discriminate | lia].
Qed.

Lemma lexnat_spec (x y : nat) (r : bool) :
  (if (x <? y)%nat then true else if (x =? y)%nat then r else false) = true <-> (x < y \/ (x = y /\ r = true))%nat.
Proof.
  destruct (Nat.ltb_spec x y); [split; auto|]. destruct (Nat.eqb_spec x y).
  - split; [auto | intros [?|[_ ?]]; [lia | assumption]].
  - split; [discriminate | lia].
Qed.


(** ---------- canonical sets of N: [canonN] depends only on the set of elements ---------- *)
Fixpoint ssorted (l : list N) : Prop :=
  match l with
  | [] => True
  | x :: r => (forall y, In y r -> (x < y)%N) /\ ssorted r
  end.

Lemma insN_in x l y : In y (insN x l) <-> In y (x :: l).
Proof.
  induction l as [|a l IH]; simpl; [tauto|].
  destruct (x <=? a)%N; simpl; [tauto | rewrite IH; simpl; tauto].
Qed.

Lemma insN_ssorted x l : ssorted l -> ~ In x l -> ssorted (insN x l).
Proof.
  induction l as [|a l IH]; simpl; [intros _ _; split; [intros ? []|exact Logic.I]|].
  intros [Ha Hs] Hn. destruct (N.leb_spec x a) as [Hle|Hlt]; simpl.
  - split; [|split; assumption].
    intros y [<-|Hy]; [|specialize (Ha y Hy)]; lia.
  - split.
    + intros y Hy. apply insN_in in Hy. destruct Hy as [<-|Hy]; [exact Hlt | auto].
    + apply IH; auto.
Qed.

Lemma sortN_in l y : In y (sortN l) <-> In y l.
Proof. induction l as [|a l IH]; simpl; [tauto|]. rewrite insN_in. simpl. rewrite IH. tauto. Qed.

Lemma sortN_ssorted l : NoDup l -> ssorted (sortN l).
Proof.
  induction 1 as [|a l Hn Hnd IH]; simpl; [exact Logic.I|].
  apply insN_ssorted; [exact IH | rewrite sortN_in; exact Hn].
Qed.

Lemma dedupN_in l y : In y (dedupN l) <-> In y l.
Proof.
  induction l as [|a l IH]; simpl; [tauto|].
  destruct (LGraph.mem a l) eqn:E; simpl; rewrite IH; [|tauto].
  apply LGraph.mem_spec in E. split; [auto | intros [<-|H]; auto].
Qed.

Lemma dedupN_nodup l : NoDup (dedupN l).
Proof.
  induction l as [|a l IH]; simpl; [constructor|].
  destruct (LGraph.mem a l) eqn:E; [exact IH|].
  constructor; [|exact IH]. rewrite dedupN_in. intros H. apply LGraph.mem_spec in H. congruence.
Qed.

Lemma canonN_in l y : In y (canonN l) <-> In y l.
Proof. unfold canonN. rewrite sortN_in, dedupN_in. tauto. Qed.

Lemma canonN_ssorted l : ssorted (canonN l).
Proof. apply sortN_ssorted, dedupN_nodup. Qed.

Lemma ssorted_ext l1 : forall l2, ssorted l1 -> ssorted l2 -> (forall y, In y l1 <-> In y l2) -> l1 = l2.
Proof.
  induction l1 as [|a l1 IH]; intros [|b l2] S1 S2 H.
  - reflexivity.
  - exfalso. apply (H b). left. reflexivity.
  - exfalso. apply (H a). left. reflexivity.
  - simpl in S1, S2. destruct S1 as [Ha S1], S2 as [Hb S2].
    assert (a = b).
    { assert (Hab : In a (b :: l2)) by (apply H; left; reflexivity).
      assert (Hba : In b (a :: l1)) by (apply H; left; reflexivity).
      destruct Hab as [->|Hab]; [reflexivity|]. destruct Hba as [->|Hba]; [reflexivity|].
      specialize (Ha b Hba). specialize (Hb a Hab). lia. }
    subst b. f_equal. apply IH; auto.
    intros y. split; intros Hy.
    + assert (Hin : In y (a :: l2)) by (apply H; right; exact Hy).
      destruct Hin as [<-|Hin]; [|exact Hin]. specialize (Ha a Hy). lia.
    + assert (Hin : In y (a :: l1)) by (apply H; right; exact Hy).
      destruct Hin as [<-|Hin]; [|exact Hin]. specialize (Hb a Hy). lia.
Qed.

Lemma canonN_ext l1 l2 : (forall y, In y l1 <-> In y l2) -> canonN l1 = canonN l2.
Proof.
  intros H. apply ssorted_ext; try apply canonN_ssorted.
  intros y. rewrite !canonN_in. apply H.
Qed.

(** the model's equality tests on lists ([leqb], [lpeqb], [parts_eqb]) are [list_eqb] at their element test, and its
    tests on pairs are the conjunction of two component tests *)
Section ListEqb.
Variable X : Type.
Variable eqb : X -> X -> bool.
Hypothesis eqb_eq : forall x y, eqb x y = true <-> x = y.

Fixpoint list_eqb (a b : list X) : bool :=
  match a, b with
  | [], [] => true
  | x :: a', y :: b' => eqb x y && list_eqb a' b'
  | _, _ => false
  end.

Lemma list_eqb_eq a : forall b, list_eqb a b = true <-> a = b.
Proof.
  induction a as [|x a IH]; intros [|y b]; simpl; try (split; [discriminate | discriminate]); try tauto.
  rewrite andb_true_iff, eqb_eq, IH. split; [intros [-> ->]; reflexivity | intros [= -> ->]; auto].
Qed.
End ListEqb.

Lemma prod_eqb_eq {X Y} (ex : X -> X -> bool) (ey : Y -> Y -> bool) :
  (forall x x', ex x x' = true <-> x = x') -> (forall y y', ey y y' = true <-> y = y') ->
  forall a b : X * Y, ex (fst a) (fst b) && ey (snd a) (snd b) = true <-> a = b.
Proof.
  intros Hx Hy [a1 a2] [b1 b2]. simpl. rewrite andb_true_iff, Hx, Hy.
  split; [intros [-> ->]; reflexivity | intros [= -> ->]; auto].
Qed.

Lemma leqb_eq a b : leqb a b = true <-> a = b.
Proof. exact (list_eqb_eq N N.eqb N.eqb_eq a b). Qed.

Lemma dedupL_in l o : In o (dedupL l) <-> In o l.
Proof.
  induction l as [|a l IH]; simpl; [tauto|].
  destruct (existsb (leqb a) l) eqn:E; simpl; rewrite IH; [|tauto].
  apply existsb_exists in E. destruct E as (b & Hb & E). apply leqb_eq in E. subst b.
  split; [auto | intros [<-|H]; auto].
Qed.

Lemma dedupL_nodup l : NoDup (dedupL l).
Proof.
  induction l as [|a l IH]; simpl; [constructor|].
  destruct (existsb (leqb a) l) eqn:E; [exact IH|].
  constructor; [|exact IH]. rewrite dedupL_in. intros H.
  assert (existsb (leqb a) l = true) by (apply existsb_exists; exists a; split; [exact H | apply leqb_eq; reflexivity]).
  congruence.
Qed.

(** ---------- orbit sets ---------- *)
Lemma orbit_raw_in (As : list mapping) u v :
  In v (orbit_raw As u) <-> exists m, In m As /\ (In (u, v) m \/ In (v, u) m).
Proof.
  unfold orbit_raw. rewrite in_flat_map. split.
  - intros (m & Hm & Hin). exists m. split; [exact Hm|].
    apply in_flat_map in Hin. destruct Hin as ([a b] & Hab & Hin). simpl in Hin.
    destruct (N.eqb_spec a u) as [->|Hne].
    + destruct Hin as [<-|[]]. left. exact Hab.
    + destruct (N.eqb_spec b u) as [->|Hne']; [|destruct Hin].
      destruct Hin as [<-|[]]. right. exact Hab.
  - intros (m & Hm & [Hin|Hin]); exists m; (split; [exact Hm|]); apply in_flat_map.
    + exists (u, v). split; [exact Hin|]. simpl. rewrite N.eqb_refl. left. reflexivity.
    + exists (v, u). split; [exact Hin|]. simpl.
      destruct (N.eqb_spec v u) as [->|Hne]; [left; reflexivity|].
      rewrite N.eqb_refl. left. reflexivity.
Qed.

(** ---------- graphs ---------- *)
(** what the theorems need of a graph: distinct node ids and no self-loops (implied by [LGraph.wf]) *)
Definition simple_graph (g : graph) : Prop :=
  NoDup (node_ids g) /\ forall a b x, In (a, b, x) (gedges g) -> a <> b.

Lemma wf_simple g : wf g -> simple_graph g.
Proof. intros (H1 & H2 & _). split; [exact H1|]. intros a b x Hin. apply (H2 a b x Hin). Qed.

Lemma find_edge_some {B} u v (es : list (N * N * B)) x :
  find_edge u v es = Some x -> exists a b, In (a, b, x) es /\ ((a = u /\ b = v) \/ (a = v /\ b = u)).
Proof.
  induction es as [|[[a b] y] r IH]; simpl; [discriminate|].
  destruct ((N.eqb a u && N.eqb b v) || (N.eqb a v && N.eqb b u)) eqn:E.
  - intros [= ->]. exists a, b. split; [left; reflexivity|].
    apply orb_true_iff in E. destruct E as [E|E]; apply andb_true_iff in E; destruct E as [E1 E2];
      apply N.eqb_eq in E1; apply N.eqb_eq in E2; auto.
  - intros H. destruct (IH H) as (a' & b' & Hin & Hc). exists a', b'. split; [right; exact Hin | exact Hc].
Qed.

Lemma adj_irrefl g u : simple_graph g -> LGraph.adj g u u = None.
Proof.
  intros [_ H]. destruct (LGraph.adj g u u) as [x|] eqn:E; [|reflexivity].
  apply find_edge_some in E. destruct E as (a & b & Hin & [[-> ->]|[-> ->]]); exfalso; exact (H _ _ _ Hin eq_refl).
Qed.

Lemma adj_of_sym fe g u v : adj_of fe g u v = adj_of fe g v u.
Proof. unfold adj_of. rewrite adj_sym. reflexivity. Qed.

Lemma adj_of_irrefl fe g u : simple_graph g -> adj_of fe g u u = None.
Proof. intros H. unfold adj_of. rewrite adj_irrefl; auto. Qed.

Lemma NoDup_map_fst_filter {V} (f : N * V -> bool) (l : list (N * V)) : NoDup (map fst l) -> NoDup (map fst (filter f l)).
Proof.
  induction l as [|a l IH]; simpl; [auto|]. intros H. inversion H as [|? ? Hn Hnd]; subst.
  destruct (f a); simpl; [|auto]. constructor; [|auto].
  intros Hin. apply Hn. apply in_map_iff in Hin. destruct Hin as (y & E & Hy).
  apply filter_In in Hy. rewrite <- E. apply in_map. tauto.
Qed.

Lemma induced_simple g c : simple_graph g -> simple_graph (induced_sub g c).
Proof.
  intros [H1 H2]. split.
  - unfold node_ids, induced_sub. simpl. apply NoDup_map_fst_filter. exact H1.
  - intros a b x Hin. unfold induced_sub in Hin. simpl in Hin. apply filter_In in Hin. apply (H2 a b x). tauto.
Qed.

(** a label-preserving automorphism of [g] w.r.t. the node label [fn] and the edge label [fe] *)
Definition is_automorphism (fn : nlab -> N) (fe : elab -> N) (g : graph) (s : N -> N) : Prop :=
  (forall u, In u (node_ids g) -> In (s u) (node_ids g)) /\
  (forall u v, In u (node_ids g) -> In v (node_ids g) -> s u = s v -> u = v) /\
  (forall u, In u (node_ids g) -> lab_of fn g (s u) = lab_of fn g u) /\
  (forall u v, In u (node_ids g) -> In v (node_ids g) -> adj_of fe g (s u) (s v) = adj_of fe g u v).

(** its list of (node, image) pairs, in the order the enumerator uses *)
Definition aut_pairs (g : graph) (s : N -> N) : mapping := rev (map (fun u => (u, s u)) (node_ids g)).

(** u ~ v: some listed automorphism maps u to v *)
Definition same_orbit (fn : nlab -> N) (fe : elab -> N) (g : graph) (u v : N) : Prop :=
  exists m, In m (auts fn fe g) /\ In (u, v) m.

Section Graph.
Variable fn : nlab -> N.
Variable fe : elab -> N.
Variable g : graph.
Hypothesis Hg : simple_graph g.

Lemma in_aut_pairs s u v : In (u, v) (aut_pairs g s) <-> In u (node_ids g) /\ v = s u.
Proof.
  unfold aut_pairs. rewrite <- in_rev, in_map_iff. split.
  - intros (x & E & Hx). inversion E; subst. auto.
  - intros [H ->]. exists u. auto.
Qed.

Lemma edge_ok_eq p h p' h' : edge_ok (adj_of fe g) (adj_of fe g) N.eqb true p h (p', h') = true <-> adj_of fe g p p' = adj_of fe g h h'.
Proof.
  unfold edge_ok; simpl. destruct (adj_of fe g p p') as [b|], (adj_of fe g h h') as [b'|]; simpl.
  - rewrite N.eqb_eq. split; [intros ->; reflexivity | intros [= ->]; reflexivity].
  - split; discriminate.
  - split; discriminate.
  - tauto.
Qed.

Lemma valid_of_pointwise (m : mapping) :
  (forall p h, In (p, h) m -> In h (node_ids g) /\ lab_of fn g h = lab_of fn g p) ->
  NoDup (map snd m) ->
  (forall p h p' h', In (p, h) m -> In (p', h') m -> adj_of fe g p p' = adj_of fe g h h') ->
  valid (node_ids g) (lab_of fn g) (lab_of fn g) (adj_of fe g) (adj_of fe g) oeqb N.eqb true m.
Proof.
  induction m as [|[p h] acc IH]; intros H1 H2 H3; [constructor|].
  simpl in H2. inversion H2 as [|? ? Hn Hnd]; subst.
  constructor.
  - apply IH; auto.
    + intros p0 h0 Hin. apply H1. right. exact Hin.
    + intros p0 h0 p1 h1 Ha Hb. apply H3; right; assumption.
  - apply (H1 p h). left. reflexivity.
  - unfold ok. rewrite !andb_true_iff. split; [split|].
    + apply oeqb_eq. apply (H1 p h). left. reflexivity.
    + apply fresh_spec. exact Hn.
    + apply forallb_forall. intros [p' h'] Hin. apply edge_ok_eq. apply H3; [left; reflexivity | right; exact Hin].
Qed.

Lemma valid_pairs (m : mapping) : valid (node_ids g) (lab_of fn g) (lab_of fn g) (adj_of fe g) (adj_of fe g) oeqb N.eqb true m ->
  (forall p h, In (p, h) m -> In h (node_ids g) /\ lab_of fn g h = lab_of fn g p) /\
  NoDup (map snd m) /\
  (forall p h p' h', In (p, h) m -> In (p', h') m -> adj_of fe g p p' = adj_of fe g h h').
Proof.
  intros Hv. destruct (valid_pointwise Hv) as (H1 & H2 & H3).
  split; [|split; [exact H2|]].
  - intros p h Hin. destruct (H1 p h Hin) as [Ha Hb]. split; [exact Ha | apply oeqb_eq; exact Hb].
  - intros p h p' h' Ha Hb.
    destruct (in_split _ _ Ha) as (l1 & l2 & ->).
    apply in_app_or in Hb. destruct Hb as [Hb|[Hb|Hb]].
    + destruct (in_split _ _ Hb) as (a & b & ->).
      rewrite (adj_of_sym fe g p p'), (adj_of_sym fe g h h'). apply edge_ok_eq.
      apply (H3 a p' h' b p h l2). rewrite <- app_assoc. reflexivity.
    + inversion Hb; subst. rewrite !adj_of_irrefl by exact Hg. reflexivity.
    + destruct (in_split _ _ Hb) as (a & b & ->).
      apply edge_ok_eq. apply (H3 l1 p h a p' h' b). reflexivity.
Qed.

(** every automorphism is listed *)
Lemma isaut_listed s : is_automorphism fn fe g s -> In (aut_pairs g s) (auts fn fe g).
Proof.
  intros (H1 & H2 & H3 & H4). unfold auts, aut_pairs. rewrite <- combine_map_pairs.
  apply monos_spec; [apply map_length|].
  rewrite combine_map_pairs. apply valid_of_pointwise.
  - intros p h Hin. apply (in_aut_pairs s) in Hin. destruct Hin as [Hp ->]. auto.
  - rewrite map_rev, map_map. simpl. apply NoDup_rev. apply inj_in_NoDup_map; [exact (proj1 Hg) | exact H2].
  - intros p h p' h' Ha Hb. apply (in_aut_pairs s) in Ha. apply (in_aut_pairs s) in Hb.
    destruct Ha as [Hp ->], Hb as [Hp' ->]. symmetry. apply H4; auto.
Qed.

(** every listed mapping is the pair list of an automorphism *)
Lemma listed_isaut m : In m (auts fn fe g) -> exists s, is_automorphism fn fe g s /\ m = aut_pairs g s.
Proof.
  intros Hin. destruct (monos_only_such _ _ _ _ _ _ _ _ _ _ Hin) as (hs & Hl & Em & Hv).
  set (s := fun u => match assoc u (combine (node_ids g) hs) with Some h => h | None => u end).
  assert (Ehs : map s (node_ids g) = hs) by (apply map_lookup_combine; [exact (proj1 Hg) | exact Hl]).
  assert (Em' : m = aut_pairs g s).
  { unfold aut_pairs. rewrite <- combine_map_pairs, Ehs. exact Em. }
  exists s. split; [|exact Em'].
  destruct (valid_pairs m Hv) as (H1 & H2 & H3).
  assert (Hmem : forall u, In u (node_ids g) -> In (u, s u) m) by (intros u Hu; rewrite Em'; apply in_aut_pairs; auto).
  repeat split.
  - intros u Hu. apply (H1 u (s u)). auto.
  - intros u v Hu Hv' E. rewrite Em' in H2. unfold aut_pairs in H2. rewrite map_rev, map_map in H2. simpl in H2.
    apply NoDup_rev in H2. rewrite rev_involutive in H2.
    eapply NoDup_map_inj_in; eauto.
  - intros u Hu. apply (H1 u (s u)). auto.
  - intros u v Hu Hv'. symmetry. apply (H3 u (s u) v (s v)); auto.
Qed.

Lemma auts_listing m : In m (auts fn fe g) <-> exists s, is_automorphism fn fe g s /\ m = aut_pairs g s.
Proof.
  split; [apply listed_isaut|]. intros (s & Hs & ->). apply isaut_listed. exact Hs.
Qed.

Lemma auts_nodup : NoDup (auts fn fe g).
Proof. unfold auts. apply monos_nodup. exact (proj1 Hg). Qed.

(** ---------- the automorphisms form a group ---------- *)
Lemma isaut_id : is_automorphism fn fe g (fun u => u).
Proof. repeat split; auto. Qed.

Lemma isaut_comp s t : is_automorphism fn fe g s -> is_automorphism fn fe g t -> is_automorphism fn fe g (fun u => s (t u)).
Proof.
  intros (S1 & S2 & S3 & S4) (T1 & T2 & T3 & T4). repeat split.
  - auto.
  - intros u v Hu Hv E. apply T2; auto.
  - intros u Hu. rewrite S3; auto.
  - intros u v Hu Hv. rewrite S4; auto.
Qed.

Lemma isaut_surj s : is_automorphism fn fe g s -> forall v, In v (node_ids g) -> exists u, In u (node_ids g) /\ s u = v.
Proof.
  intros (S1 & S2 & _ & _) v Hv.
  assert (Hincl : incl (node_ids g) (map s (node_ids g))).
  { apply NoDup_length_incl.
    - apply inj_in_NoDup_map; [exact (proj1 Hg) | exact S2].
    - rewrite map_length. lia.
    - intros x Hx. apply in_map_iff in Hx. destruct Hx as (u & <- & Hu). auto. }
  specialize (Hincl v Hv). apply in_map_iff in Hincl. destruct Hincl as (u & E & Hu). eauto.
Qed.

Definition inv_fun (s : N -> N) (v : N) : N :=
  match find (fun u => N.eqb (s u) v) (node_ids g) with Some u => u | None => v end.

Lemma inv_fun_spec s : is_automorphism fn fe g s -> forall v, In v (node_ids g) -> In (inv_fun s v) (node_ids g) /\ s (inv_fun s v) = v.
Proof.
  intros Hs v Hv. unfold inv_fun. destruct (find (fun u => N.eqb (s u) v) (node_ids g)) as [u|] eqn:F.
  - apply find_some in F. destruct F as [Hu E]. apply N.eqb_eq in E. auto.
  - exfalso. destruct (isaut_surj s Hs v Hv) as (u & Hu & E).
    pose proof (find_none _ _ F u Hu) as Hn. simpl in Hn. rewrite E, N.eqb_refl in Hn. discriminate.
Qed.

Lemma isaut_inv s : is_automorphism fn fe g s -> is_automorphism fn fe g (inv_fun s).
Proof.
  intros Hs. pose proof (inv_fun_spec s Hs) as Hi. destruct Hs as (S1 & S2 & S3 & S4). repeat split.
  - intros u Hu. apply Hi; auto.
  - intros u v Hu Hv E. destruct (Hi u Hu) as [_ <-]. destruct (Hi v Hv) as [_ <-]. rewrite E. reflexivity.
  - intros u Hu. destruct (Hi u Hu) as [Hin E]. rewrite <- E at 2. symmetry. apply S3. exact Hin.
  - intros u v Hu Hv. destruct (Hi u Hu) as [Hin E]. destruct (Hi v Hv) as [Hin' E'].
    rewrite <- E at 2. rewrite <- E' at 2. symmetry. apply S4; auto.
Qed.

Lemma same_orbit_fun u v : same_orbit fn fe g u v <-> exists s, is_automorphism fn fe g s /\ In u (node_ids g) /\ v = s u.
Proof.
  unfold same_orbit. split.
  - intros (m & Hm & Hin). apply auts_listing in Hm. destruct Hm as (s & Hs & ->).
    apply in_aut_pairs in Hin. exists s. tauto.
  - intros (s & Hs & Hu & ->). exists (aut_pairs g s). split; [apply isaut_listed; exact Hs | apply in_aut_pairs; auto].
Qed.

Lemma same_orbit_nodes u v : same_orbit fn fe g u v -> In u (node_ids g) /\ In v (node_ids g).
Proof. intros H. apply same_orbit_fun in H. destruct H as (s & Hs & Hu & ->). split; auto. apply Hs. exact Hu. Qed.

Lemma same_orbit_refl u : In u (node_ids g) -> same_orbit fn fe g u u.
Proof. intros Hu. apply same_orbit_fun. exists (fun x => x). split; [apply isaut_id | auto]. Qed.

Lemma same_orbit_sym u v : same_orbit fn fe g u v -> same_orbit fn fe g v u.
Proof.
  intros H. apply same_orbit_fun in H. destruct H as (s & Hs & Hu & ->). apply same_orbit_fun.
  exists (inv_fun s). split; [apply isaut_inv; exact Hs|].
  assert (Hsu : In (s u) (node_ids g)) by (apply Hs; exact Hu).
  split; [exact Hsu|].
  destruct (inv_fun_spec s Hs (s u) Hsu) as [Hin E].
  destruct Hs as (_ & S2 & _ & _). symmetry. apply S2; auto.
Qed.

Lemma same_orbit_trans u v w : same_orbit fn fe g u v -> same_orbit fn fe g v w -> same_orbit fn fe g u w.
Proof.
  intros H1 H2. apply same_orbit_fun in H1. apply same_orbit_fun in H2.
  destruct H1 as (s & Hs & Hu & ->). destruct H2 as (t & Ht & _ & ->).
  apply same_orbit_fun. exists (fun x => t (s x)). split; [apply isaut_comp; assumption | auto].
Qed.

Lemma auts_nonempty : (auts fn fe g) <> [].
Proof. intros E. pose proof (isaut_listed _ isaut_id) as H. rewrite E in H. exact H. Qed.


Lemma orbit_set_in u v : In u (node_ids g) -> (In v (orbit_set (auts fn fe g) u) <-> same_orbit fn fe g u v).
Proof.
  intros Hu. unfold orbit_set. rewrite canonN_in, orbit_raw_in. split.
  - intros (m & Hm & [H|H]).
    + exists m. auto.
    + apply same_orbit_sym. exists m. auto.
  - intros (m & Hm & H). exists m. auto.
Qed.

(** the orbit list of a component analysis *)
Definition exact_orbits (O : list (list N)) : Prop :=
  (forall u, In u (node_ids g) -> exists o, In o O /\ In u o) /\
  (forall o u, In o O -> In u o -> In u (node_ids g)) /\
  (forall o1 o2 u, In o1 O -> In o2 O -> In u o1 -> In u o2 -> o1 = o2) /\
  NoDup O /\
  (forall o u v, In o O -> In u o -> (In v o <-> same_orbit fn fe g u v)).

Lemma orbit_classes_exact : exact_orbits (dedupL (map (orbit_set (auts fn fe g)) (node_ids g))).
Proof.
  set (O := dedupL _).
  assert (HO : forall o, In o O <-> exists w, In w (node_ids g) /\ o = orbit_set (auts fn fe g) w).
  { intros o. unfold O. rewrite dedupL_in, in_map_iff. split; intros (w & H1 & H2); exists w; auto. }
  assert (H5 : forall o u v, In o O -> In u o -> (In v o <-> same_orbit fn fe g u v)).
  { intros o u v Ho Hu. apply HO in Ho. destruct Ho as (w & Hw & ->).
    apply orbit_set_in in Hu; [|exact Hw]. rewrite orbit_set_in by exact Hw. split; intros H.
    - eapply same_orbit_trans; [apply same_orbit_sym; exact Hu | exact H].
    - eapply same_orbit_trans; eauto. }
  split; [|split; [|split; [|split]]].
  - intros u Hu. exists (orbit_set (auts fn fe g) u). split; [apply HO; eauto|].
    apply orbit_set_in; [exact Hu | apply same_orbit_refl; exact Hu].
  - intros o u Ho Hu. apply HO in Ho. destruct Ho as (w & Hw & ->).
    apply orbit_set_in in Hu; [|exact Hw]. apply same_orbit_nodes in Hu. tauto.
  - intros o1 o2 u Ho1 Ho2 Hu1 Hu2.
    pose proof (fun v => H5 o1 u v Ho1 Hu1) as E1. pose proof (fun v => H5 o2 u v Ho2 Hu2) as E2.
    apply HO in Ho1. apply HO in Ho2. destruct Ho1 as (w1 & Hw1 & ->). destruct Ho2 as (w2 & Hw2 & ->).
    assert (Hy : forall y, In y (orbit_set (auts fn fe g) w1) <-> In y (orbit_set (auts fn fe g) w2)).
    { intros y. rewrite (E1 y), (E2 y). tauto. }
    unfold orbit_set in *. apply canonN_ext. intros y. specialize (Hy y). rewrite !canonN_in in Hy. exact Hy.
  - apply dedupL_nodup.
  - exact H5.
Qed.

Lemma single_node_auts n : node_ids g = [n] -> auts fn fe g = [[(n, n)]].
Proof.
  intros E. unfold auts, monos. rewrite E. simpl. unfold ok. simpl. rewrite oeqb_refl. reflexivity.
Qed.

Lemma analyze_component_count : snd (analyze_component fn fe g) = N.of_nat (length (auts fn fe g)).
Proof.
  unfold analyze_component. destruct (node_ids g) as [|n [|n' r]] eqn:E.
  - unfold auts. rewrite E. reflexivity.
  - rewrite (single_node_auts n E). reflexivity.
  - destruct (auts fn fe g) eqn:EA; [exfalso; exact (auts_nonempty EA) | reflexivity].
Qed.

Lemma analyze_component_orbits : exact_orbits (fst (analyze_component fn fe g)).
Proof.
  unfold analyze_component. destruct (node_ids g) as [|n [|n' r]] eqn:E.
  - simpl. unfold exact_orbits. rewrite E. repeat split; try (intros; contradiction); try constructor.
  - (* the shortcut of the code returns what the general case would compute *)
    pose proof orbit_classes_exact as H. rewrite (single_node_auts n E), E in H.
    unfold orbit_set, orbit_raw in H. cbn [map flat_map fst snd] in H. rewrite N.eqb_refl in H. exact H.
  - destruct (auts fn fe g) eqn:EA; [exfalso; exact (auts_nonempty EA)|].
    cbv beta iota delta [fst]. rewrite <- EA, <- E. apply orbit_classes_exact.
Qed.

End Graph.

(** ---------- Automorphism._analyze ---------- *)
Lemma analyze_count fn fe g : simple_graph g ->
  a_count (analyze fn fe g) =
    if (length (components g) <=? 1)%nat then N.of_nat (length (auts fn fe g))
    else fold_left N.mul (map (fun c => N.of_nat (length (auts fn fe (induced_sub g c)))) (components g)) 1%N.
Proof.
  intros Hg. unfold analyze. destruct (node_ids g) as [|n r] eqn:E.
  - assert (Ec : components g = []) by (unfold components; rewrite E; reflexivity).
    rewrite Ec. simpl. unfold auts. rewrite E. reflexivity.
  - destruct (length (components g) <=? 1)%nat.
    + rewrite <- (analyze_component_count fn fe g Hg). destruct (analyze_component fn fe g). reflexivity.
    + simpl. rewrite map_map. f_equal. apply map_ext. intros c.
      apply analyze_component_count. apply induced_simple. exact Hg.
Qed.

Lemma analyze_orbits_connected fn fe g : simple_graph g -> (length (components g) <= 1)%nat ->
  exact_orbits fn fe g (a_orbits (analyze fn fe g)).
Proof.
  intros Hg Hc. unfold analyze. destruct (node_ids g) as [|n r] eqn:E.
  - simpl. unfold exact_orbits. rewrite E. repeat split; try (intros; contradiction); try constructor.
  - apply Nat.leb_le in Hc. rewrite Hc.
    pose proof (analyze_component_orbits fn fe g Hg) as H. destruct (analyze_component fn fe g). exact H.
Qed.

Lemma analyze_orbits_disconnected fn fe g : simple_graph g -> (1 < length (components g))%nat ->
  forall o, In o (a_orbits (analyze fn fe g)) <->
            exists c, In c (components g) /\ In o (fst (analyze_component fn fe (induced_sub g c))).
Proof.
  intros Hg Hc o. unfold analyze. destruct (node_ids g) as [|n r] eqn:E.
  - assert (Ec : components g = []) by (unfold components; rewrite E; reflexivity).
    rewrite Ec in Hc. simpl in Hc. lia.
  - apply Nat.leb_gt in Hc. rewrite Hc. simpl. rewrite dedupL_in, in_flat_map. split.
    + intros (x & Hx & Ho). apply in_map_iff in Hx. destruct Hx as (c & <- & Hin). eauto.
    + intros (c & Hin & Ho). exists (analyze_component fn fe (induced_sub g c)). split; [|exact Ho].
      apply in_map_iff. exists c. split; [reflexivity | exact Hin].
Qed.

Lemma analyze_orbits_nodup fn fe g : simple_graph g -> NoDup (a_orbits (analyze fn fe g)).
Proof.
  intros Hg. unfold analyze. destruct (node_ids g) as [|n r] eqn:E; [constructor|].
  destruct (length (components g) <=? 1)%nat.
  - pose proof (analyze_component_orbits fn fe g Hg) as H. destruct (analyze_component fn fe g). apply H.
  - simpl. apply dedupL_nodup.
Qed.
