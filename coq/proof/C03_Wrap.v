(** C03 — SynReactor._wrap_template for a template handed over as a SynRule object: forward the
    rule is used as it is; backward the prepared rule graph is inverted and NOT prepared again, so the rule that is
    glued is exactly the prepared rule with its two sides swapped. *)
From Coq Require Import List NArith ZArith Bool.
From SK Require Import lib.Tok lib.LGraph model.C03_Model proof.C03_Proof proof.C03_Glue proof.C03_Backward.
Import ListNotations.
Local Open Scope Z_scope.

Theorem wrap_rule_spec (implicit_temp : bool) (rc : its) (l r : molg) :
  wrap_template_rule false implicit_temp (rc, l, r) = Some (rc, l, r) /\
  (nodupb (node_ids rc) = true ->
   wrap_template_rule true implicit_temp (rc, l, r)
   = Some (invert_template rc, snd (its_decompose rc), fst (its_decompose rc))).
Proof.
  split; [reflexivity|]. intros Hnd. unfold wrap_template_rule. cbn [fst].
  rewrite (synrule_implicit (invert_template rc)) by (rewrite invert_ids; exact Hnd).
  rewrite invert_decompose. reflexivity.
Qed.

Example ex_wrap_rule :
  let rc := LG [(1%N, IN (NA 67%N false 1 0 []) (NA 67%N false 0 0 []) 0 (Some [1%N])); (2%N, IN (NA 79%N false 0 0 []) (NA 79%N false 1 0 []) 0 (Some [1%N]))]
               [(1%N, 2%N, (2, 4, -2))] in
  nodupb (node_ids rc) = true /\
  option_map (fun t => gedges (fst (fst t))) (wrap_template_rule true false (rc, fst (its_decompose rc), snd (its_decompose rc))) = Some [(1%N, 2%N, (4, 2, 2))].
Proof. vm_compute. split; reflexivity. Qed.
