(** C11 (round 3) — the estimated orbits (colour classes) partition the node set. *)
From Coq Require Import List NArith.
From SK Require Import lib.LGraph model.C11_Model proof.C11_WL proof.C11_Main.
Import ListNotations.

Lemma wl_orbits_partition (fn : nlab -> N) (fe : elab -> N) (g : graph) (k : nat) :
  NoDup (node_ids g) ->
  let O := wl_orbits (wl fn fe g k) in
  (forall u, In u (node_ids g) -> exists o, In o O /\ In u o) /\
  (forall o u, In o O -> In u o -> In u (node_ids g)) /\
  (forall o1 o2 u, In o1 O -> In o2 O -> In u o1 -> In u o2 -> o1 = o2) /\
  (forall o u v, In o O -> In u o -> (In v o <-> In v (node_ids g) /\ col (wl fn fe g k) v = col (wl fn fe g k) u)).
Proof.
  intros Hnd O. set (cs := wl fn fe g k) in *.
  assert (Hfst : map fst cs = node_ids g) by apply wl_nodes.
  assert (Hnd' : NoDup (map fst cs)) by (rewrite Hfst; exact Hnd).
  assert (HO : forall o, In o O <-> exists c, In c (map snd cs) /\ o = map fst (filter (fun p => N.eqb (snd p) c) cs)).
  { intros o. unfold O. rewrite wl_orbits_in. apply classes_in. }
  split; [|split; [|split]].
  - intros u Hu. rewrite <- Hfst in Hu. destruct (assoc_some_in u cs Hu) as (a & Ea).
    exists (map fst (filter (fun p => N.eqb (snd p) a) cs)). split.
    + apply HO. exists a. split; [|reflexivity]. apply in_map_iff. exists (u, a). split; [reflexivity | apply assoc_in; exact Ea].
    + apply (class_member cs a u Hnd'). split; [exact Hu|]. unfold col. rewrite Ea. reflexivity.
  - intros o u Ho Hu. apply HO in Ho. destruct Ho as (c & _ & ->).
    apply (class_member cs c u Hnd') in Hu. rewrite <- Hfst. tauto.
  - intros o1 o2 u Ho1 Ho2 Hu1 Hu2. apply HO in Ho1. apply HO in Ho2.
    destruct Ho1 as (c1 & _ & ->). destruct Ho2 as (c2 & _ & ->).
    apply (class_member cs c1 u Hnd') in Hu1. apply (class_member cs c2 u Hnd') in Hu2.
    destruct Hu1 as [_ E1]. destruct Hu2 as [_ E2]. rewrite <- E1, <- E2. reflexivity.
  - intros o u v Ho Hu. apply HO in Ho. destruct Ho as (c & _ & ->).
    apply (class_member cs c u Hnd') in Hu. destruct Hu as [_ Ec].
    rewrite (class_member cs c v Hnd'), Hfst, Ec. tauto.
Qed.
