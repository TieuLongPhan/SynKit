(** C04 — the whole reactor for ANY rule that describes a pair, with its pattern ([left_of]): engine (C06), pruning (C11), gluing;
    instances: the reaction's own template in implicit mode (pattern = reactant side of the template) and in the default
    (explicit-hydrogen) mode, where the stripped pattern the matcher sees is the reactant side of the prepared rule (elements,
    charges, hydrogen counts, bonds) and _explicit_h follows the gluing. *)
From Coq Require Import List NArith ZArith Bool Permutation.
From SK Require Import lib.LGraph model.C06_Model lib.C06_Spec proof.C06_All model.C03_Model model.C04_Model model.C04_Reactor proof.C03_Proof
                       proof.C03_Glue proof.C03_Skeleton proof.C03_StripExact proof.C03_StripCor proof.C04_Glue proof.C04_Template proof.C04_Any proof.C04_Proof
                       proof.C04_Default proof.C04_DefaultProof proof.C04_Engine proof.C04_Object proof.C04_Prune proof.C04_Chain proof.C04_Explicit.
Import ListNotations.
Local Open Scope Z_scope.

(** * the pattern of a rule: [left_of rc l] = every atom of [l] is an atom of [rc] with the element, charge and hydrogen
    count of its reactant tuple; every bond of [l] is a bond of [rc] with that (positive) reactant order; same atoms *)
Record left_of (rc : its) (l : molg) : Prop := {
  lo_ids : node_ids l = node_ids rc;
  lo_nodes : forall k la, In (k, la) (gnodes l) ->
               exists a, label rc k = Some a /\ m_el la = a_el (iG a) /\ m_ch la = a_ch (iG a) /\ m_hc la = a_hc (iG a);
  lo_edges : forall u v o, In (u, v, o) (gedges l) -> exists x, In (u, v, x) (gedges rc) /\ eG x = o /\ 0 < o }.

(** a match of the rule is a match of its pattern *)
Lemma left_match (host : hostg) (rc : its) (l : molg) (m : C03_Model.mapping) :
  left_of rc l -> match_rcb host rc m = true -> match_okb host l m = true.
Proof.
  intros [Li Ln Le] H. unfold match_rcb in H. unfold match_okb.
  apply andb_prop in H. destruct H as [H H5]. apply andb_prop in H. destruct H as [H H4].
  apply andb_prop in H. destruct H as [H H3]. apply andb_prop in H. destruct H as [H1 H2].
  rewrite H1, H2. cbn [andb].
  assert (El : length (gnodes l) = length (gnodes rc)).
  { transitivity (length (node_ids l)); [unfold node_ids; rewrite map_length; reflexivity|]. rewrite Li. unfold node_ids. apply map_length. }
  rewrite El, H3. cbn [andb].
  apply andb_true_intro; split; apply forallb_forall.
  - intros [k la] I. destruct (Ln k la I) as (a & Ea & E1 & E2 & E3). eapply forallb_elim in H4; [|exact (assoc_in k (gnodes rc) Ea)].
    unfold rc_node_okb in H4. unfold node_okb. cbn [fst snd] in *. destruct (mget m k) as [h|]; [|discriminate].
    destruct (label host h) as [x|]; [|discriminate]. rewrite E1, E2, E3. exact H4.
  - intros [[u v] o] I. destruct (Le u v o I) as (x & Ix & Eo & Hpos). eapply forallb_elim in H5; [|exact Ix].
    unfold rc_edge_okb in H5. unfold edge_okb. destruct (mget m u) as [hu|]; [|exact H5]. destruct (mget m v) as [hv|]; [|exact H5].
    rewrite Eo in H5. apply Z.ltb_lt in Hpos. rewrite Hpos in H5. exact H5.
Qed.

(** * the default-mode rule preparation returns the rule together with its pattern *)
Lemma side0_edges_G tpl : gedges (side0 iG eG tpl)
  = flat_map (fun e : N * N * iedge => let '(u, v, x) := e in if 0 <? eG x then [(u, v, eG x)] else []) (gedges tpl).
Proof. reflexivity. Qed.

Theorem default_left_of (tpl rc : its) (l r : molg) :
  nodupb (node_ids tpl) = true -> (forall k a, In (k, a) (gnodes tpl) -> a_el (iH a) = a_el (iG a)) ->
  synrule tpl true = Some (rc, l, r) -> left_of rc l.
Proof.
  intros Hnd0 Hel H. pose proof (nodupb_NoDup _ Hnd0) as Hnd.
  destruct (synrule_default_pointwise tpl rc l r Hnd0 Hel H) as (R0 & _ & _ & _ & Eidl & _ & Nrc & _).
  destruct (synrule_default_exact tpl rc l r Hnd0 Hel H) as (R & _ & (KK & Erc) & (LL & El) & _ & HC).
  assert (Nl : NoDup (node_ids l)) by (rewrite Eidl; exact Nrc).
  constructor.
  - exact Eidl.
  - intros k la I.
    destruct (Forall2_in_l _ _ _ _ LL I) as ([k0 sa] & Iq & (F1 & F2 & _ & F4 & _)). cbn [fst snd] in *. subst k0.
    apply filter_In in Iq. destruct Iq as [Iq _]. rewrite side0_nodes_G in Iq. apply in_map_iff in Iq. destruct Iq as ([k1 a0] & E & I0).
    cbn [fst snd] in E. inversion E; subst k1 sa. clear E.
    assert (Ik : In k (node_ids rc)) by (rewrite <- Eidl; unfold node_ids; change k with (fst (k, la)); apply in_map; exact I).
    destruct (in_ids_label rc k Ik) as [a Ea]. exists a. split; [exact Ea|].
    pose proof (assoc_in k (gnodes rc) Ea) as Ia.
    destruct (Forall2_in_l _ _ _ _ KK Ia) as ([k2 a0'] & Iq' & (G1 & G2 & _)). cbn [fst snd] in *. subst k2.
    apply filter_In in Iq'. destruct Iq' as [Iq' _].
    assert (a0' = a0).
    { pose proof (label_in tpl k a0 Hnd I0) as L1. pose proof (label_in tpl k a0' Hnd Iq') as L2. congruence. }
    subst a0'.
    destruct (HC k a Ia) as (la' & ra & Ll & _ & Hh & _).
    assert (la' = la) by (pose proof (label_in l k la Nl I) as L1; congruence). subst la'.
    unfold n0 in F2, F4. cbn [m_el m_ch] in F2, F4. unfold set_hc in G2. inversion G2 as [[Q1 Q2 Q3 Q4]].
    split; [congruence|]. split; [congruence|]. symmetry. exact Hh.
  - intros u v o I. rewrite El, side0_edges_G in I. apply filter_In in I. destruct I as [I K].
    apply in_flat_map in I. destruct I as ([[u' v'] x] & Ix & I'). destruct (0 <? eG x) eqn:Ep; [|destruct I'].
    destruct I' as [I'|[]]. inversion I'; subst u' v' o. exists x. split; [|split; [reflexivity|apply Z.ltb_lt; exact Ep]].
    rewrite Erc. apply filter_In. split; [exact Ix|]. unfold keepe, mkeepe in *. cbn [fst snd] in *. exact K.
Qed.

(** * pruning + gluing for any raw list that is sound and contains the identity *)
Theorem raw_chain (A B : hostg) (rc : its) (l : molg) (raw : list C03_Model.mapping) :
  pair_wf A B -> describes A B rc -> left_of rc l ->
  (forall m, In m raw -> is_mono (tr_host A) (tr_pat l) m) ->
  (exists m0, In m0 raw /\ Permutation (id_map (node_ids l)) m0) ->
  exists y T, In y (C11_Model.prune (fun m : C03_Model.mapping => m) (rule_graph rc) raw) /\
              glue A rc y = Some T /\ regen_exact T A B = true.
Proof.
  intros PW D LO Hsound Hid. rewrite (lo_ids _ _ LO) in Hid.
  apply (pruned_regen (cn_of rc) (ce_of rc) A B rc raw PW D (canon_faithful rc)); [|exact Hid].
  intros m Im. destruct (Hsound m Im) as (K1 & K2 & K3 & _). split; [exact K1|]. split; [exact K3|].
  intros p h Iph. rewrite <- (lo_ids _ _ LO), <- tr_pat_ids. apply K2. change p with (fst (p, h)). apply in_map. exact Iph.
Qed.

(** * engine + pruning + gluing for ANY rule that describes a pair, with its pattern *)
Section ChainAny.
  Variable enum : list N -> list N -> list C06_Model.mapping.
  Variables (A B : hostg) (rc : its) (l r : molg) (o : ropts).
  Hypothesis PW : pair_wf A B.
  Hypothesis D : describes A B rc.
  Hypothesis LO : left_of rc l.
  Hypothesis Hf : has_XH l = false.
  Hypothesis Hstrat : o_strategy o = SMember 0%N.
  Hypothesis Hpref : o_pref o = false.
  Hypothesis Hnn : forallb (fun p => 0 <=? m_hc (snd p)) (gnodes l) = true.
  Hypothesis Hvf2 : vf2_contract enum (tr_host A) (tr_pat l) (node_ids (tr_host A)) (node_ids (tr_pat l)).
  Hypothesis Hthr : (lenN (enum (node_ids (tr_host A)) (node_ids (tr_pat l))) <= dflt DEFAULT_THRESHOLD (o_thr o))%N.

  Let Hwr := d_wf _ _ _ D.
  Let Hnd : NoDup (node_ids rc) := wf_rc_nodup rc Hwr.
  Let raw := C06_Model.find enum (Cfg 0 0 (dflt DEFAULT_THRESHOLD (o_thr o)) true false) (tr_host A) (tr_pat l).

  Lemma pat_is_l : pattern_of l = l.
  Proof. unfold pattern_of. rewrite Hf. reflexivity. Qed.

  Lemma any_identity_match : match_okb A l (id_map (node_ids l)) = true.
  Proof. rewrite (lo_ids _ _ LO). exact (left_match A rc l _ LO (fits_match_rc A B rc (d_fits _ _ _ D))). Qed.

  Theorem any_mappings :
    exists ms y T, compute_mappings (api_engine enum) o A (rc, l, r) = Some ms /\ In y ms /\
                   glue A rc y = Some T /\ regen_exact T A B = true.
  Proof.
    assert (Nl : NoDup (node_ids l)) by (rewrite (lo_ids _ _ LO); exact Hnd).
    destruct (all_exact enum (dflt DEFAULT_THRESHOLD (o_thr o)) true (tr_host A) (tr_pat l) Hvf2 Hthr) as (Hsound & _ & _).
    destruct (accepted_match_among_raw enum (dflt DEFAULT_THRESHOLD (o_thr o)) true A l (id_map (node_ids l)) Nl) as (m0 & I0 & P0).
    { exact (counts_nonneg _ Hnn). }
    { exact any_identity_match. } { exact Hvf2. } { exact Hthr. }
    fold raw in I0, Hsound.
    destruct (raw_chain A B rc l raw PW D LO Hsound (ex_intro _ m0 (conj I0 P0))) as (y & T & Iy & ET & ER).
    exists (C11_Model.prune (fun m : C03_Model.mapping => m) (rule_graph rc) raw), y, T. split; [|split; [exact Iy|split; [exact ET|exact ER]]].
    unfold compute_mappings. cbn [fst snd]. rewrite pat_is_l, Hstrat, Hpref. reflexivity.
  Qed.
End ChainAny.

(** * from its_list to smarts_list, for any reactor: an ITS of its_list whose two sides RDKit writes as [r] and [p] gives the
    reaction string (turned round when the reactor runs backwards) *)
Lemma smarts_contains (engine : sarg -> option N -> bool -> C06_Model.graph -> C06_Model.graph -> outcome)
    (rematch : nat -> hostg -> molg -> list C03_Model.mapping) (ser : nat -> its -> option bytes * option bytes)
    (o : ropts) (host : hostg) (rule : triple) (gs : list its) (T : its) (i : nat) (r p : bytes) :
  fst (read_its engine rematch o host rule fresh) = Some gs ->
  nth_error gs i = Some T -> ser i T = (Some r, Some p) -> r ++ arrow ++ p <> [] -> no_gt r -> no_gt p ->
  exists ss, fst (read_smarts engine rematch ser o host rule fresh) = Some ss /\
             In (if o_invert o then p ++ arrow ++ r else r ++ arrow ++ p) ss.
Proof.
  intros Ei En Es Hne Hr Hp. exists (smarts_of ser o gs). split.
  - unfold read_smarts. cbn [fresh s_smarts]. destruct (read_its engine rematch o host rule fresh) as [og st1].
    simpl in Ei. subst og. reflexivity.
  - unfold smarts_of.
    assert (Hin : In (r ++ arrow ++ p) (flat_map truthy (mapi (fun i g => to_smarts (ser i g)) gs))).
    { apply in_flat_map. exists (Some (r ++ arrow ++ p)). split.
      - pose proof (in_mapi_nth (fun i g => to_smarts (ser i g)) gs i T En) as Q. simpl in Q. rewrite Es in Q. exact Q.
      - unfold truthy. destruct (r ++ arrow ++ p) as [|c s] eqn:E; [contradiction Hne; reflexivity|]. left. reflexivity. }
    destruct (o_invert o).
    + rewrite <- (reverse_reaction_swaps r p Hr Hp). apply in_map. exact Hin.
    + exact Hin.
Qed.

(** * the reaction's own template in implicit mode through the reactor object: own substrate -> find_subgraph_mappings (C06's call
      interface on the VF2 contract) -> pruning (C11) -> _glue_graph -> its_list -> smarts_list *)
Lemma own_left_of (t : its) : wf_rcb t = true -> left_of t (dec_side iG eG t).
Proof.
  intros Hw. pose proof (wf_rc_nodup t Hw) as Hnd. constructor.
  - unfold node_ids. rewrite dec_gnodes, map_map. reflexivity.
  - intros k la I. rewrite dec_gnodes in I. apply in_map_iff in I. destruct I as ([k' a] & E & I). cbn [fst snd] in E. inversion E; subst.
    exists a. split; [exact (label_in t k a Hnd I)|]. unfold dec_node; simpl. auto.
  - intros u v o I. unfold dec_side in I; cbn [gedges] in I. apply in_flat_map in I. destruct I as ([[u' v'] x] & Ix & I').
    destruct (0 <? eG x) eqn:E; [|destruct I']. destruct I' as [I'|[]]. inversion I'; subst. exists x. split; [exact Ix|]. split; [reflexivity|apply Z.ltb_lt; exact E].
Qed.

Section Chain.
  Variable enum : list N -> list N -> list C06_Model.mapping.
  Variable rematch : nat -> hostg -> molg -> list C03_Model.mapping.
  Variable ser : nat -> its -> option bytes * option bytes.
  Variables (core invert : bool) (G H : hostg).
  Variable thr : option N.
  Hypothesis W : pair_wfb G H = true.
  Hypothesis NH : no_explicit_H G = true.
  Hypothesis CC : core = true -> centre_carries (its_construct G H) = true.
  Let A := if invert then H else G.
  Let B := if invert then G else H.
  Let tpl := template core invert G H.
  Let left := dec_side iG eG tpl.
  Let rule : triple := (tpl, left, dec_side iH eH tpl).
  Let host := substrate invert G H.
  (** the reactor for the reaction's own template in implicit mode, exhaustive strategy, no pre-filter *)
  Let o := own_opts invert false (SMember 0%N) thr false.
  (** hydrogen counts of the pattern are not negative (boolean evaluated by the correspondence) *)
  Hypothesis Hnn : forallb (fun p => 0 <=? m_hc (snd p)) (gnodes (pattern_of left)) = true.
  (** C06's contract for the one VF2 enumeration the exhaustive strategy makes; the number of matches does not exceed the
      threshold (embed_threshold, default 5000: beyond it the engine returns nothing, by design) *)
  Hypothesis Hvf2 : vf2_contract enum (tr_host host) (tr_pat (pattern_of left))
                                 (node_ids (tr_host host)) (node_ids (tr_pat (pattern_of left))).
  Hypothesis Hthr : (lenN (enum (node_ids (tr_host host)) (node_ids (tr_pat (pattern_of left)))) <= dflt DEFAULT_THRESHOLD thr)%N.

  Theorem chain_its :
    exists gs T, fst (read_its (api_engine enum) rematch o host rule fresh) = Some gs /\ In T gs /\ regen_exact T A B = true.
  Proof.
    pose proof (template_describes core invert G H W NH CC) as D.
    pose proof Hnn as Hnn'. pose proof Hvf2 as Hvf2'. pose proof Hthr as Hthr'. unfold host, left, tpl in Hnn', Hvf2', Hthr' |- *.
    rewrite (pattern_is_left core invert G H W NH) in Hnn', Hvf2', Hthr'.
    rewrite (substrate_is_A core invert G H W NH) in Hvf2', Hthr' |- *.
    destruct (any_mappings enum A B tpl left (dec_side iH eH tpl) o (pair_AB core invert G H W) D (own_left_of tpl (d_wf _ _ _ D))
                (own_no_XH core invert G H W NH) eq_refl eq_refl Hnn' Hvf2' Hthr') as (ms & y & T & Em & Iy & Eg & RT).
    destruct (its_of_mappings (api_engine enum) rematch o A tpl left (dec_side iH eH tpl) ms y T eq_refl
                (own_no_XH core invert G H W NH) Em Iy Eg) as (gs & Egs & It).
    exists gs, T. auto.
  Qed.

  (** ... and, if RDKit writes its two sides as [r] and [p], smarts_list contains the reaction (reversed back when the
      reactor runs backwards) *)
  Theorem chain_smarts :
    exists gs T, fst (read_its (api_engine enum) rematch o host rule fresh) = Some gs /\ In T gs /\ regen_exact T A B = true /\
      forall i r p, nth_error gs i = Some T -> ser i T = (Some r, Some p) -> r ++ arrow ++ p <> [] -> no_gt r -> no_gt p ->
        exists ss, fst (read_smarts (api_engine enum) rematch ser o host rule fresh) = Some ss /\
                   In (if invert then p ++ arrow ++ r else r ++ arrow ++ p) ss.
  Proof.
    destruct chain_its as (gs & T & Ei & IT & RT). exists gs, T. split; [exact Ei|]. split; [exact IT|]. split; [exact RT|].
    intros i r p En Es Hne Hr Hp. exact (smarts_contains (api_engine enum) rematch ser o host rule gs T i r p Ei En Es Hne Hr Hp).
  Qed.

  Theorem chain_full :
    rule_of core invert G H = Some rule /\
    exists gs T, fst (read_its (api_engine enum) rematch o host rule fresh) = Some gs /\ In T gs /\ regen_exact T A B = true /\
      forall i r p, nth_error gs i = Some T -> ser i T = (Some r, Some p) -> r ++ arrow ++ p <> [] -> no_gt r -> no_gt p ->
        exists ss, fst (read_smarts (api_engine enum) rematch ser o host rule fresh) = Some ss /\
                   In (if invert then p ++ arrow ++ r else r ++ arrow ++ p) ss.
  Proof. split; [exact (rule_is_template core invert G H W NH)|exact chain_smarts]. Qed.
End Chain.

(** * the reaction's own template in the default mode, through the reactor object *)
Section DefaultChain.
  Variable enum : list N -> list N -> list C06_Model.mapping.
  Variable rematch : nat -> hostg -> molg -> list C03_Model.mapping.
  Variables (core invert : bool) (G H : hostg) (thr : option N).
  Hypothesis W : pair_wfb G H = true.
  Hypothesis ME : mode_E G H = true.
  Let A := if invert then H else G.
  Let B := if invert then G else H.
  Let tpl := template core invert G H.
  Hypothesis OK : default_okb A B tpl = true.
  Hypothesis CC : core = true -> centre_carries (its_construct G H) = true.
  Let host := substrate invert G H.
  Let o := own_opts invert true (SMember 0%N) thr false.

  (** the identity passes the matcher's predicates on the stripped pattern (default-mode counterpart of C04_identity_match) *)
  Theorem default_identity_match :
    exists rc l r, rule_of core invert G H = Some (rc, l, r) /\ has_XH l = false /\ left_of rc l /\
      match_okb host (pattern_of l) (id_map (node_ids (pattern_of l))) = true.
  Proof.
    pose proof (pair_AB' core invert G H W OK) as PW. pose proof (own_describes core invert G H W OK CC) as D.
    destruct (default_rule A B tpl PW D OK) as (rc & l & r & Es & Ep & El & PW' & D').
    exists rc, l, r. unfold rule_of. rewrite ME. fold tpl. split; [exact Es|].
    assert (LO : left_of rc l).
    { apply (default_left_of tpl rc l r); [exact (fits_nodupb A B tpl (d_fits _ _ _ D))|exact (tpl_el A B tpl PW D)|exact Es]. }
    destruct (default_rule_spec A B tpl PW D OK rc l r Es) as (_ & _ & _ & Hf & _). split; [exact Hf|]. split; [exact LO|].
    rewrite Ep. unfold host, substrate. fold A.
    rewrite (lo_ids _ _ LO). exact (left_match _ rc l _ LO (fits_match_rc _ _ rc (d_fits _ _ _ D'))).
  Qed.

  (** the prepared rule, whichever way it is named: it describes the pair of folded sides, [l] is its pattern *)
  Lemma default_facts (rc : its) (l r : molg) : rule_of core invert G H = Some (rc, l, r) ->
    pair_wf host (h_to_implicit_host B) /\ describes host (h_to_implicit_host B) rc /\ left_of rc l /\ has_XH l = false.
  Proof.
    intros Er.
    pose proof (pair_AB' core invert G H W OK) as PW. pose proof (own_describes core invert G H W OK CC) as D.
    destruct (default_rule A B _ PW D OK) as (rc0 & l0 & r0 & Es & _ & _ & PW' & D').
    assert (E3 : (rc0, l0, r0) = (rc, l, r)).
    { unfold rule_of in Er. rewrite ME in Er. rewrite Es in Er. inversion Er. reflexivity. }
    inversion E3; subst rc0 l0 r0. clear E3.
    destruct default_identity_match as (rc1 & l1 & r1 & Er1 & Hf & LO & _).
    rewrite Er in Er1. inversion Er1; subst rc1 l1 r1.
    split; [exact PW'|]. split; [exact D'|]. split; [exact LO|exact Hf].
  Qed.

  Theorem default_chain (rc : its) (l r : molg) :
    rule_of core invert G H = Some (rc, l, r) ->
    forallb (fun p => 0 <=? m_hc (snd p)) (gnodes l) = true ->
    vf2_contract enum (tr_host host) (tr_pat l) (node_ids (tr_host host)) (node_ids (tr_pat l)) ->
    (lenN (enum (node_ids (tr_host host)) (node_ids (tr_pat l))) <= dflt DEFAULT_THRESHOLD thr)%N ->
    (forall ms, compute_mappings (api_engine enum) o host (rc, l, r) = Some ms -> crashed rematch o host (rc, l, r) ms = false) ->
    exists gs T', fst (read_its (api_engine enum) rematch o host (rc, l, r) fresh) = Some gs /\ In T' gs /\
                  regen_folded T' A B = true.
  Proof.
    intros Er Hnn Hvf2 Hthr NC. destruct (default_facts rc l r Er) as (PW' & D' & LO & Hf).
    destruct (any_mappings enum (h_to_implicit_host A) (h_to_implicit_host B) rc l r o PW' D' LO Hf eq_refl eq_refl Hnn)
      as (ms & y & T & Em & Iy & ET & RE).
    { exact Hvf2. } { exact Hthr. }
    change (h_to_implicit_host A) with host in Em, ET.
    specialize (NC ms Em). unfold crashed in NC. cbn [o own_opts o_explicit_h andb] in NC.
    destruct (its_of_mappings_explicit (api_engine enum) rematch o host rc l r ms y T eq_refl Hf Em NC Iy ET) as (gs & T' & ms' & Eg & IT' & EX).
    exists gs, T'. split; [exact Eg|]. split; [exact IT'|].
    exact (own_explicit_end core invert G H rc y T T' ms' W OK ET RE EX).
  Qed.
End DefaultChain.

(** * the structural premises [gwf] of C06's theorems for the graphs the reactor hands to the engine follow from the
    well-formedness of the reaction: they need not be assumed in the theorems about the reaction's own templates. *)
Lemma tr_edges_in (es : list (N * N * Z)) a b x : In (a, b, x) (tr_edges es) -> exists o, In (a, b, o) es.
Proof.
  unfold tr_edges. intros I. apply in_map_iff in I. destruct I as ([[u v] o] & E & I). inversion E; subst. exists o. exact I.
Qed.

Lemma gwf_tr_host (A : hostg) : wf_hostb A = true -> closed A -> gwf (tr_host A).
Proof.
  intros HA CA. split.
  - rewrite tr_host_ids. exact (wf_host_nodup A HA).
  - intros a b x I. unfold tr_host in I; cbn [gedges] in I. apply tr_edges_in in I. destruct I as (o & I).
    rewrite tr_host_ids. destruct (CA a b o I) as [Ia Ib]. split; [exact Ia|]. split; [exact Ib|].
    unfold wf_hostb in HA. apply andb_prop in HA. destruct HA as [HA _]. apply andb_prop in HA. destruct HA as [_ HS].
    exact (simple_edges_ne (gedges A) a b o HS I).
Qed.

(** the pattern of a rule whose bonds join its own atoms *)
Lemma gwf_tr_pat (rc : its) (l : molg) : left_of rc l -> wf_rcb rc = true ->
  (forall u v x, In (u, v, x) (gedges rc) -> In u (node_ids rc) /\ In v (node_ids rc)) -> gwf (tr_pat l).
Proof.
  intros LO Hw Hcl. split.
  - rewrite tr_pat_ids, (lo_ids _ _ LO). exact (wf_rc_nodup rc Hw).
  - intros a b x I. unfold tr_pat in I; cbn [gedges] in I. apply tr_edges_in in I. destruct I as (o & I).
    destruct (lo_edges _ _ LO a b o I) as (y & Iy & _). rewrite tr_pat_ids, (lo_ids _ _ LO).
    destruct (Hcl a b y Iy) as [Ia Ib]. split; [exact Ia|]. split; [exact Ib|].
    exact (simple_edges_ne (gedges rc) a b y (wf_rc_simple rc Hw) Iy).
Qed.
Lemma gwf_tr_pat_describes (A B : hostg) (rc : its) (l : molg) : describes A B rc -> left_of rc l -> gwf (tr_pat l).
Proof.
  intros D LO. apply (gwf_tr_pat rc l LO (d_wf _ _ _ D)). intros u v x I. destruct (d_edges _ _ _ D u v x I) as (Iu & Iv & _). auto.
Qed.
