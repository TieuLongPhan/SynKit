(** C03 — the reactor as a state machine (model/C03_Reactor.v): whatever is read, in whatever order and however often,
    every read returns the value the inputs determine ([spec_val]) — unless _explicit_h raises, in which case the
    second read of its_list silently returns the glued graphs; and the string half of the serialisation (direction of
    the returned reaction, what smiles_list extracts). *)
From Coq Require Import List NArith ZArith Bool.
From SK Require Import lib.Tok lib.LGraph model.C03_Model model.C03_Order model.C03_Reactor.
Import ListNotations.
Local Open Scope Z_scope.

(** * strings *)
Lemma split_gt_aux_cons2 cur a b t :
  split_gt_aux cur (a :: b :: t) = if N.eqb a GT && N.eqb b GT then rev cur :: split_gt_aux [] t else split_gt_aux (a :: cur) (b :: t).
Proof. reflexivity. Qed.

Lemma split_aux_nogt p : ~ In GT p -> forall cur, split_gt_aux cur p = [rev cur ++ p].
Proof.
  induction p as [|a r IH]; intros Hn cur; [simpl; rewrite app_nil_r; reflexivity|].
  assert (Ha : N.eqb a GT = false) by (apply N.eqb_neq; intros ->; apply Hn; left; reflexivity).
  assert (Hr : ~ In GT r) by (intros I; apply Hn; right; exact I).
  destruct r as [|b r'].
  - simpl. reflexivity.
  - rewrite split_gt_aux_cons2, Ha. cbn [andb]. rewrite (IH Hr (a :: cur)). simpl. rewrite <- app_assoc. reflexivity.
Qed.

Lemma split_aux_join r p : ~ In GT r -> ~ In GT p -> forall cur, split_gt_aux cur (r ++ GT :: GT :: p) = [rev cur ++ r; p].
Proof.
  intros Hr Hp. induction r as [|a r0 IH]; intros cur.
  - cbn [app]. rewrite split_gt_aux_cons2, N.eqb_refl. cbn [andb]. rewrite (split_aux_nogt p Hp []). rewrite app_nil_r. reflexivity.
  - assert (Ha : N.eqb a GT = false) by (apply N.eqb_neq; intros ->; apply Hr; left; reflexivity).
    assert (Hr0 : ~ In GT r0) by (intros I; apply Hr; right; exact I).
    cbn [app]. destruct (r0 ++ GT :: GT :: p) as [|b t] eqn:E; [destruct r0; discriminate|].
    rewrite split_gt_aux_cons2, Ha. cbn [andb]. rewrite (IH Hr0 (a :: cur)). simpl. rewrite <- app_assoc. reflexivity.
Qed.

Lemma split_join r p : ~ In GT r -> ~ In GT p -> split_gt (join_gt r p) = [r; p].
Proof. intros Hr Hp. unfold split_gt, join_gt. cbn [app]. exact (split_aux_join r p Hr Hp []). Qed.

Lemma reverse_join r p : ~ In GT r -> ~ In GT p -> reverse_reaction (join_gt r p) = join_gt p r.
Proof. intros Hr Hp. unfold reverse_reaction. rewrite (split_join r p Hr Hp). reflexivity. Qed.
Lemma last_join r p : ~ In GT r -> ~ In GT p -> last_part (join_gt r p) = p.
Proof. intros Hr Hp. unfold last_part. rewrite (split_join r p Hr Hp). reflexivity. Qed.
Lemma reverse_involutive r p : ~ In GT r -> ~ In GT p -> reverse_reaction (reverse_reaction (join_gt r p)) = join_gt r p.
Proof. intros Hr Hp. rewrite (reverse_join r p Hr Hp), (reverse_join p r Hp Hr). reflexivity. Qed.

Lemma truthy_join r p : truthy (join_gt r p) = true.
Proof. unfold join_gt. destruct r; reflexivity. Qed.

(** what smarts_list holds, entry by entry: the i-th graph contributes nothing if RDKit refused one side, otherwise
    "r>>p" forwards and "p>>r" backwards *)
Definition entry (invert : bool) (rp : option str * option str) : list str :=
  match rp with
  | (Some r, Some p) => [if invert then join_gt p r else join_gt r p]
  | _ => []
  end.
Definition side_entry (invert : bool) (rp : option str * option str) : list str :=
  match rp with
  | (Some r, Some p) => [if invert then r else p]
  | _ => []
  end.

Section Ser.
  Variable ser : nat -> its -> option str * option str.
  Hypothesis ser_nogt : forall i g r p, ser i g = (Some r, Some p) -> ~ In GT r /\ ~ In GT p.

  Lemma smarts_of_entries (invert : bool) (gs : list its) : forall i0,
    (if invert
     then map reverse_reaction (flat_map (fun o : option str => match o with Some s => if truthy s then [s] else [] | None => [] end)
                                         (mapi (fun i g => to_smarts (ser i g)) i0 gs))
     else flat_map (fun o : option str => match o with Some s => if truthy s then [s] else [] | None => [] end)
                   (mapi (fun i g => to_smarts (ser i g)) i0 gs))
    = flat_map (fun x : list str => x) (mapi (fun i g => entry invert (ser i g)) i0 gs).
  Proof.
    induction gs as [|g r IH]; intros i0; [destruct invert; reflexivity|].
    cbn [mapi flat_map]. specialize (IH (S i0)).
    destruct (ser i0 g) as [[rs|] [ps|]] eqn:E; cbn [to_smarts entry].
    - rewrite truthy_join. destruct (ser_nogt i0 g rs ps E) as [H1 H2]. destruct invert.
      + rewrite map_app. cbn [map]. rewrite (reverse_join rs ps H1 H2), IH. reflexivity.
      + rewrite IH. reflexivity.
    - cbn [app]. exact IH.
    - cbn [app]. exact IH.
    - cbn [app]. exact IH.
  Qed.

  Theorem smarts_of_spec (invert : bool) (gs : list its) :
    smarts_of invert ser gs = flat_map (fun x : list str => x) (mapi (fun i g => entry invert (ser i g)) O gs) /\
    map last_part (smarts_of invert ser gs) = flat_map (fun x : list str => x) (mapi (fun i g => side_entry invert (ser i g)) O gs).
  Proof.
    unfold smarts_of. cbv zeta. rewrite (smarts_of_entries invert gs O). split; [reflexivity|].
    generalize O. induction gs as [|g r IH]; intros i0; [reflexivity|].
    cbn [mapi flat_map]. rewrite map_app, IH. f_equal.
    destruct (ser i0 g) as [[rs|] [ps|]] eqn:E; cbn [entry side_entry map]; try reflexivity.
    destruct (ser_nogt i0 g rs ps E) as [H1 H2]. destruct invert; [rewrite (last_join ps rs H2 H1)|rewrite (last_join rs ps H1 H2)]; reflexivity.
  Qed.
End Ser.

(** * the caches hold nothing but what the inputs determine *)
Definition nocrash (inp : rin) : Prop := i_explicit inp = true -> explicit_all (spec_glued inp) <> None.

Record inv0 (inp : rin) (st : rstate) : Prop := {
  iv_rule : forall r, s_rule st = Some r -> r = i_rule inp;
  iv_maps : forall m, s_maps st = Some m -> m = i_calls inp /\ i_rule inp <> None /\ s_flag st = spec_flag inp;
  iv_flag : s_flag st = true -> spec_flag inp = true;
  iv_its : forall gs, s_its st = Some gs -> spec_its inp = Some gs;
  iv_smarts : forall s, s_smarts st = Some s -> spec_smarts inp = Some s }.

Lemma inv0_rs0 inp : inv0 inp rs0.
Proof. constructor; simpl; intros; discriminate. Qed.

Lemma rd_rule_spec inp st : inv0 inp st ->
  forall st' r, rd_rule inp st = (st', r) ->
    r = i_rule inp /\ inv0 inp st' /\ s_maps st' = s_maps st /\ s_flag st' = s_flag st /\ s_its st' = s_its st /\ s_smarts st' = s_smarts st.
Proof.
  intros Hinv st' r H. unfold rd_rule in H. destruct (s_rule st) as [r0|] eqn:E.
  - inversion H; subst. split; [exact (iv_rule _ _ Hinv _ E)|]. split; [exact Hinv|]. repeat split.
  - inversion H; subst. pose proof Hinv as [I1 I2 I3 I4 I5]. split; [reflexivity|]. split; [|repeat split].
    constructor; cbn [s_rule s_maps s_flag s_its s_smarts]; try assumption. intros r Hr. inversion Hr. reflexivity.
Qed.

Lemma rd_maps_spec inp st : inv0 inp st ->
  forall st' r, rd_maps inp st = (st', r) ->
    r = match i_rule inp with Some _ => Some (i_calls inp) | None => None end /\ inv0 inp st' /\
    (i_rule inp <> None -> s_flag st' = spec_flag inp) /\ s_its st' = s_its st /\ s_smarts st' = s_smarts st.
Proof.
  intros Hinv st' r H. unfold rd_maps in H. destruct (s_maps st) as [m|] eqn:E.
  - inversion H; subst. destruct (iv_maps _ _ Hinv m E) as (-> & Hne & Hf). split; [destruct (i_rule inp); [reflexivity|congruence]|].
    split; [exact Hinv|]. repeat split. intros _. exact Hf.
  - destruct (rd_rule inp st) as [st1 r1] eqn:E1. destruct (rd_rule_spec inp st Hinv st1 r1 E1) as (-> & Hinv1 & K2 & K3 & K4 & K5).
    destruct (i_rule inp) as [[[rc l] r']|] eqn:Er; pose proof Hinv1 as [J1 J2 J3 J4 J5].
    + inversion H; subst. split; [reflexivity|].
      assert (Hf : (s_flag st1 || has_XH l)%bool = spec_flag inp).
      { pose proof J3 as S. unfold spec_flag in *. rewrite Er in *. destruct (s_flag st1); [rewrite (S eq_refl)|]; reflexivity. }
      split; [|repeat split; cbn [s_flag s_its s_smarts]; try assumption; intros _; exact Hf].
      constructor; cbn [s_rule s_maps s_flag s_its s_smarts]; try assumption.
      * intros m Hm. inversion Hm. split; [reflexivity|]. split; [rewrite Er; discriminate|exact Hf].
      * intros Hx. rewrite <- Hf. exact Hx.
    + inversion H; subst. split; [reflexivity|]. split; [exact Hinv1|]. repeat split; try assumption. intros C. congruence.
Qed.

Lemma rd_its_spec inp st : nocrash inp -> inv0 inp st ->
  forall st' r, rd_its inp st = (st', r) -> r = spec_its inp /\ inv0 inp st' /\ s_smarts st' = s_smarts st.
Proof.
  intros Hnc Hinv st' r H. unfold rd_its in H. destruct (s_its st) as [gs|] eqn:E.
  - inversion H; subst. split; [symmetry; exact (iv_its _ _ Hinv _ E)|]. split; [exact Hinv|reflexivity].
  - destruct (rd_rule inp st) as [st1 r1] eqn:E1. destruct (rd_rule_spec inp st Hinv st1 r1 E1) as (-> & Hinv1 & K2 & K3 & K4 & K5).
    destruct (i_rule inp) as [[[rc l] r']|] eqn:Er.
    + destruct (rd_maps inp st1) as [st2 m] eqn:E2.
      destruct (rd_maps_spec inp st1 Hinv1 st2 m E2) as (-> & [J1 J2 J3 J4 J5] & Hf & L4 & L5). rewrite Er in H.
      assert (Hg : glue_all (s_flag st2) (i_host inp) rc (i_calls inp) (i_tbls inp) = spec_glued inp).
      { unfold spec_glued. rewrite Er, (Hf ltac:(rewrite Er; discriminate)). reflexivity. }
      rewrite Hg in H. unfold spec_its. rewrite Er.
      destruct (i_explicit inp) eqn:Ex.
      * destruct (explicit_all (spec_glued inp)) as [gs|] eqn:Ea; [|exfalso; exact (Hnc Ex Ea)].
        inversion H; subst. split; [reflexivity|]. split; [|cbn [s_smarts]; congruence].
        constructor; cbn [s_rule s_maps s_flag s_its s_smarts]; try assumption.
        intros gs' Hgs. inversion Hgs; subst. unfold spec_its. rewrite Er, Ex. exact Ea.
      * inversion H; subst. split; [reflexivity|]. split; [|cbn [s_smarts]; congruence].
        constructor; cbn [s_rule s_maps s_flag s_its s_smarts]; try assumption.
        intros gs' Hgs. inversion Hgs; subst. unfold spec_its. rewrite Er, Ex. reflexivity.
    + inversion H; subst. unfold spec_its. rewrite Er. split; [reflexivity|]. split; [exact Hinv1|exact K5].
Qed.

Lemma rd_smarts_spec inp st : nocrash inp -> inv0 inp st ->
  forall st' r, rd_smarts inp st = (st', r) -> r = spec_smarts inp /\ inv0 inp st'.
Proof.
  intros Hnc Hinv st' r H. unfold rd_smarts in H. destruct (s_smarts st) as [s|] eqn:E.
  - inversion H; subst. split; [symmetry; exact (iv_smarts _ _ Hinv _ E)|exact Hinv].
  - destruct (rd_its inp st) as [st1 r1] eqn:E1. destruct (rd_its_spec inp st Hnc Hinv st1 r1 E1) as (-> & Hinv1 & K5).
    unfold spec_smarts. destruct (spec_its inp) as [gs|] eqn:Es.
    + inversion H; subst. split; [reflexivity|]. pose proof Hinv1 as [J1 J2 J3 J4 J5].
      constructor; cbn [s_rule s_maps s_flag s_its s_smarts]; try assumption.
      intros s Hs. inversion Hs; subst. unfold spec_smarts. rewrite Es. reflexivity.
    + inversion H; subst. split; [reflexivity|exact Hinv1].
Qed.

(** one read: the value is the specified one, the invariant is kept *)
Theorem step_spec inp st op : nocrash inp -> inv0 inp st ->
  forall st' v, step inp st op = (st', v) -> v = spec_val inp op /\ inv0 inp st'.
Proof.
  intros Hnc Hinv st' v H. destruct op; cbn [step spec_val] in *.
  1: destruct (rd_rule inp st) as [st1 r] eqn:E; destruct (rd_rule_spec inp st Hinv st1 r E) as (-> & Hi & _).
  2,3: destruct (rd_maps inp st) as [st1 r] eqn:E; destruct (rd_maps_spec inp st Hinv st1 r E) as (-> & Hi & _).
  4: destruct (rd_its inp st) as [st1 r] eqn:E; destruct (rd_its_spec inp st Hnc Hinv st1 r E) as (-> & Hi & _).
  5,6: destruct (rd_smarts inp st) as [st1 r] eqn:E; destruct (rd_smarts_spec inp st Hnc Hinv st1 r E) as (-> & Hi).
  all: inversion H; subst; split; [|exact Hi].
  1,4,5,6: reflexivity.
  all: destruct (i_rule inp); reflexivity.
Qed.

(** any script of reads on a fresh reactor: every read returns the value the inputs determine *)
Theorem run_ops_spec inp : nocrash inp -> forall ops st, inv0 inp st -> run_ops inp st ops = map (spec_val inp) ops.
Proof.
  intros Hnc. induction ops as [|op r IH]; intros st Hinv; [reflexivity|].
  cbn [run_ops map]. destruct (step inp st op) as [st' v] eqn:E.
  destruct (step_spec inp st op Hnc Hinv st' v E) as [-> Hi]. rewrite (IH st' Hi). reflexivity.
Qed.

Corollary reads_stable inp ops : nocrash inp -> run_ops inp rs0 ops = map (spec_val inp) ops.
Proof. intros Hnc. exact (run_ops_spec inp Hnc ops rs0 (inv0_rs0 inp)). Qed.

(** * when _explicit_h raises: the first read of its_list raises, the second returns the glued graphs *)
Theorem reads_after_crash inp rc l r :
  i_rule inp = Some (rc, l, r) -> i_explicit inp = true -> explicit_all (spec_glued inp) = None ->
  run_ops inp rs0 [Oits; Oits; Oits] = [Vraise; Vits (map fst (spec_glued inp)); Vits (map fst (spec_glued inp))].
Proof.
  intros Er Ex Ea.
  assert (Hg : glue_all (false || has_XH l) (i_host inp) rc (i_calls inp) (i_tbls inp) = spec_glued inp).
  { unfold spec_glued, spec_flag. rewrite Er. reflexivity. }
  cbv beta iota zeta delta [run_ops step rd_its rd_maps rd_rule rs0 s_rule s_maps s_flag s_its s_smarts].
  rewrite Er. cbv beta iota zeta delta [s_rule s_maps s_flag s_its s_smarts].
  rewrite Hg, Ex, Ea. reflexivity.
Qed.

(** the flag: after any read that needs the mappings it is the pattern's, and its_list on a FRESH reactor takes the route
    the pattern calls for (the flag is read after `self.mappings` has set it) *)
Theorem fresh_its_route inp rc l r :
  i_rule inp = Some (rc, l, r) -> nocrash inp ->
  forall st' v, step inp rs0 Oits = (st', v) ->
    s_flag st' = has_XH l /\
    v = match spec_its inp with Some gs => Vits gs | None => Vraise end /\
    (i_explicit inp = false -> v = Vits (map fst (glue_all (has_XH l) (i_host inp) rc (i_calls inp) (i_tbls inp)))).
Proof.
  intros Er Hnc st' v H. destruct (step_spec inp rs0 Oits Hnc (inv0_rs0 inp) st' v H) as [Hv Hi].
  split; [|split; [exact Hv|]].
  - revert H. cbv beta iota zeta delta [step rd_its rd_maps rd_rule rs0 s_rule s_maps s_flag s_its s_smarts].
    rewrite Er. cbv beta iota zeta delta [s_rule s_maps s_flag s_its s_smarts].
    destruct (i_explicit inp); [destruct (explicit_all _)|]; intros H; inversion H; reflexivity.
  - intros Ex. rewrite Hv. cbn [spec_val]. unfold spec_its, spec_glued, spec_flag. rewrite Er, Ex. reflexivity.
Qed.
