(** C17 — the premises of the verdict-soundness theorem, CHECKED per input: if the premise slot of the observable ([premises_ok], compared
    with four Trues on every run) is all true, the verdict logic is sound on that input with no assumption about the numerics left. *)
From Coq Require Import List ZArith.
From SK Require Import lib.C17_Farkas model.C17_Model model.C17_NodeModel proof.C17_Proof.
Import ListNotations.

Lemma decided_true (o : option bool) : match o with Some true => true | _ => false end = true -> o = Some true.
Proof. now destruct o as [[|]|]. Qed.

Theorem verdicts_sound_checked k kr n S cc fc nm :
  premises_ok n S cc fc nm = [true; true; true; true] ->
  (conservative_verdict k nm = true -> conservative n S) /\
  (consistent_verdict kr nm = Some true -> consistent n S).
Proof.
  unfold premises_ok. cbv zeta. intros [= H1 H2 H3 H4].
  pose proof (fun H => proj1 (decide_conservative_sound n S cc true (decided_true _ H)) eq_refl) as Tc.
  pose proof (fun H => proj1 (decide_consistent_sound n S fc true (decided_true _ H)) eq_refl) as Tf.
  (* a flag that is set turns its [implb] into the certified truth *)
  split; [apply conservative_verdict_sound | apply consistent_verdict_sound]; intros Hs; rewrite Hs in *; auto.
Qed.

(** non-vacuity: A <-> B (conservative, consistent): all four flags set and backed by the certificates (1,1) / (1,1); a set flag
    without a backing certificate makes the slot false *)
Example premises_example :
  let S := [[-1; 1]; [1; -1]]%Z in
  premises_ok 2 S (FPos [1; 1]%Z) (FPos [1; 1]%Z) (Num true true 0 true) = [true; true; true; true] /\
  premises_ok 2 S (FNeg [1; 0]%Z) (FPos [1; 1]%Z) (Num true false 0 false) = [false; true; true; true].
Proof. vm_compute. split; reflexivity. Qed.
