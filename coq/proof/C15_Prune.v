(** C15 — the must-drop direction of the species clause: an orphaned species IS dropped.
    After remove_rxn, a species of the removed reaction is still in the species set IF AND ONLY IF it still occurs in a
    stored reaction (whether or not it was ever kept); after remove_species(x, prune_orphans=True), x is gone.
    With C15_species_shrink_only_where_allowed (nothing else is dropped) and [Inv] this is the exact reading of the species
    clause that code, model and oracle share. *)
From stdpp Require Import gmap strings sets.
From SK Require Import model.C15_Model proof.C15_Proof.
Local Open Scope string_scope.

Lemma remove_rxn_prunes s e s' rx : Inv s → edges s !! e = Some rx → remove_rxn s e = (s', None) →
  ∀ x, x ∈ rxn_species rx → (x ∈ species s' ↔ occurs (edges s') x).
Proof.
  intros HI He Hr x Hx.
  pose proof (remove_rxn_Inv s e HI) as HI'. pose proof (remove_rxn_pruned s e rx He) as (_ & _ & Hs & _).
  rewrite Hr in HI', Hs. cbn [fst] in HI', Hs.
  split; [|apply (inv_occ _ HI')]. intros [_ Hno]%Hs.
  apply occurs_not_orphaned; [apply indexed_producers, HI'|apply indexed_consumers, HI'|].
  intros Hor. apply Hno. by split.
Qed.

Lemma remove_species_prunes s x s' : remove_species s x true = (s', None) → x ∉ species s'.
Proof.
  intros (_ & E & O & ->)%remove_species_shape. cbn. intros [_ []]%elem_of_difference. by apply elem_of_singleton.
Qed.

(** non-vacuity: A -> B; remove_species A keep; add A -> C as e2; remove_rxn e2: A (ever kept, a
    species of the removed reaction, occurring nowhere) is dropped, C too, B stays *)
Definition exp_s0 : net := (remove_species (add empty_net {[ "A" := 1%positive ]} {[ "B" := 1%positive ]} "r" None).1.1 "A" false).1.
Definition exp_s1 : net := (add exp_s0 {[ "A" := 1%positive ]} {[ "C" := 1%positive ]} "r" (Some "e2")).1.1.
Definition exp_s2 : net := (remove_rxn exp_s1 "e2").1.
Example ex_prunes_nonvacuous :
  bool_decide ("A" ∈ kept exp_s1) = true ∧ bool_decide ("A" ∈ species exp_s1) = true ∧ (remove_rxn exp_s1 "e2").2 = None ∧
  bool_decide (species exp_s2 = {[ "B" ]}) = true ∧ size (edges exp_s2) = 1%nat.
Proof. split_and!; by vm_compute. Qed.
