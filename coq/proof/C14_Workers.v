(** C14 — proofs about BatchReactor.fit with worker processes (model/C14_WorkersModel.v): a pickled copy of the
    applier — cache keys meaningless in the worker, pinned objects replaced by copies — satisfies the invariant of
    the heap+cache machine, so every application in every worker, under every worker-side allocator / collector
    schedule, returns execute(contents); the per-entry outputs of every batch of tasks are the single-entry results,
    and so is their concatenation for every order-preserving cut of the entry list. *)
From Coq Require Import NArith List Arith.
Import ListNotations.
From SK Require Import model.C14_Model model.C14_WorkersModel proof.C14_Proof proof.C14_Batch proof.C14_Cluster.
Local Open Scope N_scope.

Lemma contents_of_cons ev tr :
  contents_of (ev :: tr) = match ev with EAlloc _ c => [c] | _ => [] end ++ contents_of tr.
Proof. reflexivity. Qed.

Lemma contents_of_allocated tr : contents_of tr = flat_map allocated tr.
Proof. reflexivity. Qed.

Lemma index_of_spec o ids : In o ids ->
  (N.to_nat (index_of o ids) < length ids)%nat /\ nth (N.to_nat (index_of o ids)) ids 0 = o.
Proof.
  induction ids as [|x ids IH]; intros Hin; [destruct Hin|]. cbn [index_of].
  destruct (x =? o) eqn:E.
  - apply N.eqb_eq in E. subst. change (N.to_nat 0) with 0%nat. cbn [nth length]. split; [apply Nat.lt_0_succ|reflexivity].
  - destruct Hin as [Hx|Hin]; [apply N.eqb_neq in E; congruence|].
    destruct (IH Hin) as [H1 H2].
    rewrite N2Nat.inj_add. change (N.to_nat 1) with 1%nat. cbn [Nat.add nth length]. split; [apply -> Nat.succ_lt_mono; exact H1|exact H2].
Qed.

Lemma ship_contents_length cs ids : length (ship_contents cs ids) = length ids.
Proof. unfold ship_contents. apply map_length. Qed.

Lemma ship_contents_at cs ids o : In o ids ->
  cont_of (ship_contents cs ids) (index_of o ids) = cont_of cs o.
Proof.
  intros Hin. destruct (index_of_spec o ids Hin) as [H1 H2].
  unfold cont_of, ship_contents.
  rewrite (nth_indep _ 0 (nth (N.to_nat 0) cs 0)) by (rewrite map_length; exact H1).
  rewrite (map_nth (fun o0 => nth (N.to_nat o0) cs 0)). rewrite H2. reflexivity.
Qed.

Section ShipInv.
  Variable R : Type.
  Variable execute : N -> N -> bool -> R.

  Lemma pinned_in_ids (c : list (centry R)) roots e : In e c ->
    In (e_ps e) (ship_ids c roots) /\ In (e_pr e) (ship_ids c roots).
  Proof.
    intros Hin. unfold ship_ids. split; apply dedupe_In, in_app_iff; right; apply in_flat_map;
      exists e; simpl; auto.
  Qed.

  Lemma root_in_ids (c : list (centry R)) roots r : In r roots -> In r (ship_ids c roots).
  Proof. intros Hin. unfold ship_ids. apply dedupe_In, in_app_iff. auto. Qed.

  Lemma ship_Inv cs sp roots addrs :
    Inv R execute cs sp ->
    Inv R execute (ship_contents cs (ship_ids (cache sp) roots)) (ship cs sp roots addrs).
  Proof.
    intros (Hn & Hh & Hc). unfold ship.
    set (ids := ship_ids (cache sp) roots). set (cs' := ship_contents cs ids).
    assert (Hlen : length cs' = length ids) by apply ship_contents_length.
    repeat split; simpl.
    - now rewrite Hlen.
    - apply Forall_forall. intros x Hx. apply in_map_iff in Hx as [k [<- Hk]]. apply in_seq in Hk.
      split; simpl.
      + rewrite Nat2N.id, Hlen. apply Hk.
      + unfold cont_of. now rewrite Nat2N.id.
    - apply Forall_forall. intros e' He'. apply in_map_iff in He' as [e [<- He]].
      rewrite Forall_forall in Hc. destruct (Hc e He) as (Hr & _ & _).
      destruct (pinned_in_ids (cache sp) roots e He) as [Hps Hpr]. fold ids in Hps, Hpr.
      unfold entry_ok, ship_entry. simpl. repeat split.
      + unfold cs'. rewrite !ship_contents_at by assumption. exact Hr.
      + rewrite Hlen. apply index_of_spec. exact Hps.
      + rewrite Hlen. apply index_of_spec. exact Hpr.
  Qed.
End ShipInv.

Lemma wchunks_fuel_chunks {A} fuel c : forall l : list A, wchunks_fuel fuel c l = chunks_fuel A fuel c l.
Proof.
  induction fuel as [|fuel IH]; intros l; simpl; [reflexivity|].
  destruct l; [reflexivity|]. now rewrite IH.
Qed.

Lemma wchunks_concat {A} c (l : list A) : concat (wchunks c l) = l.
Proof. unfold wchunks. rewrite wchunks_fuel_chunks. apply (concat_chunks A), Nat.le_max_r. Qed.

Section Workers.
  Variable execute : N -> N -> bool -> list N.
  Variable cache_on : bool.
  Variable cmax : nat.

  Notation runL := (run (list N) execute true cache_on cmax).

  (** every application in a worker — whatever the worker's allocator and collector do, whatever the parent's cache
      contained when it was pickled — returns execute(contents of the two objects) *)
  Theorem worker_transparent tr0 outs0 sp roots addrs tr outs fin :
    runL (init _) tr0 = (true, outs0, sp) ->
    runL (ship (contents_of tr0) sp roots addrs) tr = (true, outs, fin) ->
    map snd outs = spec execute (ship_contents (contents_of tr0) (ship_ids (cache sp) roots)) tr.
  Proof.
    intros H0 Hw.
    eapply cache_transparent_from; [|exact Hw]. apply ship_Inv. rewrite contents_of_allocated.
    exact (run_Inv _ execute cache_on cmax [] _ tr0 _ _ (init_Inv _ execute) H0).
  Qed.

  (** one batch of entries in a worker: the outputs are the single-entry results *)
  Theorem worker_batch_is_map dd tr0 outs0 sp rules addrs inv chunk tr :
    runL (init _) tr0 = (true, outs0, sp) ->
    let cs := contents_of tr0 in
    let ids := ship_ids (cache sp) rules in
    let sw := ship cs sp rules addrs in
    fst (fst (runL sw tr)) = true ->
    client_view tr = worker_prog (length ids) (map (fun r => index_of r ids) rules) inv chunk ->
    worker_outputs execute cache_on cmax dd sw (length rules) chunk tr =
    (true, map (single execute dd (map (cont_of cs) rules) inv) chunk).
  Proof.
    intros H0 cs ids sw Hok Hview. unfold worker_outputs.
    destruct (runL sw tr) as [[ok outs] fin] eqn:Er. simpl in Hok. subst ok.
    pose proof (worker_transparent _ _ _ _ _ _ _ _ H0 Er) as Hs. fold cs ids in Hs.
    rewrite Hs, spec_client_view, Hview. unfold worker_prog.
    rewrite <- (ship_contents_length cs ids).
    pose proof (entries_spec execute (map (fun r => index_of r ids) rules) (map (cont_of cs) rules) inv chunk
                  (ship_contents cs ids)) as H.
    destruct (entries_prog (N.of_nat (length (ship_contents cs ids))) (map (fun r => index_of r ids) rules) inv chunk)
      as [ops n'].
    destruct H as [H1 _].
    { intros l. rewrite map_map. apply map_ext_in. intros r Hr.
      assert (Hin : In r ids) by (apply root_in_ids; exact Hr).
      rewrite cont_of_ext by (rewrite ship_contents_length; apply index_of_spec; exact Hin).
      apply ship_contents_at. exact Hin. }
    simpl.
    rewrite H1, <- (app_nil_r (concat _)), chop_entry_results by apply map_length.
    simpl. now rewrite entry_out_results.
  Qed.

  (** rule-level parallelism: the single application of a task returns execute(contents) *)
  Theorem rule_task_transparent tr0 outs0 sp s r addrs inv tr outs fin :
    runL (init _) tr0 = (true, outs0, sp) ->
    let cs := contents_of tr0 in
    let ids := ship_ids (cache sp) [s; r] in
    runL (ship cs sp [s; r] addrs) tr = (true, outs, fin) ->
    client_view tr = rule_task_prog (index_of s ids) (index_of r ids) inv ->
    map snd outs = [execute (cont_of cs s) (cont_of cs r) inv].
  Proof.
    intros H0 cs ids Hw Hview.
    rewrite (worker_transparent _ _ _ _ _ _ _ _ H0 Hw), spec_client_view, Hview.
    rewrite <- (ship_contents_at cs ids s), <- (ship_contents_at cs ids r) by (apply root_in_ids; simpl; auto).
    reflexivity.
  Qed.
  (** fit with entry-level workers = map single over all entries, for ANY list of batches of tasks,
      every parent history before the fit (any legal trace [tr0]: e.g. earlier serial work that filled the cache which is
      then pickled), every address assignment of the copies and every legal worker trace per batch *)
  Theorem fit_batches_is_map dd tr0 outs0 sp rules inv (batches : list (list N))
          (addrs_of : nat -> list N) (ktrs : list (nat * list event)) :
    runL (init _) tr0 = (true, outs0, sp) ->
    let cs := contents_of tr0 in
    let ids := ship_ids (cache sp) rules in
    Forall2 (fun chunk ktr =>
               fst (fst (runL (ship cs sp rules (addrs_of (fst ktr))) (snd ktr))) = true /\
               client_view (snd ktr) = worker_prog (length ids) (map (fun r => index_of r ids) rules) inv chunk)
            batches ktrs ->
    concat (map (fun x : list N * (nat * list event) =>
                   snd (worker_outputs execute cache_on cmax dd (ship cs sp rules (addrs_of (fst (snd x))))
                                       (length rules) (fst x) (snd (snd x))))
                (combine batches ktrs)) =
    map (single execute dd (map (cont_of cs) rules) inv) (concat batches).
  Proof.
    intros H0 cs ids HF. subst cs ids. rewrite concat_map. f_equal.
    induction HF as [|chunk ktr chunks ktrs' [Hok Hview] HF IH]; [reflexivity|].
    cbn [combine map fst snd]. f_equal; [|exact IH].
    now rewrite (worker_batch_is_map dd tr0 outs0 sp rules (addrs_of (fst ktr)) inv chunk (snd ktr) H0 Hok Hview).
  Qed.

  (** in particular for every order-preserving cut [wchunks c] of the entry list *)
  Theorem fit_workers_is_map dd tr0 outs0 sp rules inv subs c
          (addrs_of : nat -> list N) (traces : list (list event)) :
    runL (init _) tr0 = (true, outs0, sp) ->
    let cs := contents_of tr0 in
    let ids := ship_ids (cache sp) rules in
    Forall2 (fun chunk ktr =>
               fst (fst (runL (ship cs sp rules (addrs_of (fst ktr))) (snd ktr))) = true /\
               client_view (snd ktr) = worker_prog (length ids) (map (fun r => index_of r ids) rules) inv chunk)
            (wchunks c subs) (combine (seq 0 (length traces)) traces) ->
    concat (map (fun x : list N * (nat * list event) =>
                   snd (worker_outputs execute cache_on cmax dd (ship cs sp rules (addrs_of (fst (snd x))))
                                       (length rules) (fst x) (snd (snd x))))
                (combine (wchunks c subs) (combine (seq 0 (length traces)) traces))) =
    map (single execute dd (map (cont_of cs) rules) inv) subs.
  Proof.
    intros H0 cs ids HF. subst cs ids.
    rewrite (fit_batches_is_map dd tr0 outs0 sp rules inv _ addrs_of _ H0 HF), wchunks_concat.
    reflexivity.
  Qed.
End Workers.

(** A parent that has served two entries serially (cache of size 2 filled with the second entry's two results, its
    substrate kept alive by the cache alone), then ships the applier: in the worker the first new substrate is given the
    address of the stale substrate key while the rule copies sit at their old addresses — both stale keys collide, the
    identity check rejects them, and the worker returns the right results. *)
Definition nvw_exec (s r : N) (inv : bool) : list N := [s + r; s; if inv then 1 else 0].
Definition nvw_tr0 : list event := synth (list N) nvw_exec true 2 (init _) (parent_prog [50; 60] false [1; 2]).
Definition nvw_sp : state (list N) := snd (run (list N) nvw_exec true true 2 (init _) nvw_tr0).
Definition nvw_ids : list N := ship_ids (cache nvw_sp) [0; 1].
Definition nvw_sw : state (list N) := ship (contents_of nvw_tr0) nvw_sp [0; 1] (copy_addrs nvw_sp [0; 1] nvw_ids).
Definition nvw_tr : list event := synth (list N) nvw_exec true 2 nvw_sw (worker_prog (length nvw_ids) [0; 1] false [1; 3]).

Example worker_nonvacuous :
  fst (fst (run (list N) nvw_exec true true 2 (init _) nvw_tr0)) = true /\
  map (fun e => (e_ks e, e_kr e, e_ps e)) (cache nvw_sp) = [(4, 1, 3); (4, 2, 3)] /\          (* parent: keys 4/1, 4/2 pin object 3 *)
  map (fun e => (e_ks e, e_kr e, e_ps e)) (cache nvw_sw) = [(4, 1, 2); (4, 2, 2)] /\          (* worker: same keys, pin copy 2 *)
  firstn 3 nvw_tr = [EAlloc 4 1; EApply 3 0 false; EApply 3 1 false] /\                        (* new substrate at address 4 *)
  client_view nvw_tr = worker_prog (length nvw_ids) [0; 1] false [1; 3] /\
  worker_outputs nvw_exec true 2 true nvw_sw 2 [1; 3] nvw_tr = (true, [[51; 1; 0; 61]; [53; 3; 0; 63]]) /\
  map (single nvw_exec true [50; 60] false) [1; 3] = [[51; 1; 0; 61]; [53; 3; 0; 63]].
Proof. vm_compute. repeat split; reflexivity. Qed.

Example fit_workers_synth_nonvacuous :
  fit_workers_synth nvw_exec true 2 true (contents_of nvw_tr0) nvw_sp [0; 1] false [1; 2; 3; 1; 5] 2 =
  (true, map (single nvw_exec true [50; 60] false) [1; 2; 3; 1; 5]) /\
  rule_task_synth nvw_exec true 2 (contents_of nvw_tr0) nvw_sp 0 1 false = (true, nvw_exec 50 60 false).
Proof. vm_compute. split; reflexivity. Qed.
