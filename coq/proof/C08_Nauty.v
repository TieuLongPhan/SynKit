(** C08 — the nauty back-end: the model's search is the generic pruned search of C08_IR.v; its result is a
    permutation of the node set (faithful, onto 1..N).  [Section Search] proves this for any signature, label, pruning
    bound and initial partition; the directed and the selection variants instantiate it. *)
From Coq Require Import List NArith ZArith Bool Arith Lia Permutation.
From SK Require Import lib.LGraph lib.IRSortKeys lib.IRCore lib.IRSearch lib.StrJoin.
From SK Require Import model.C08_Model proof.C08_Spec proof.C08_Sort proof.C08_IR proof.C08_Faithful.
From SK Require lib.IRInst.
Import ListNotations.

(* ---------------- Python str order ---------------- *)
Lemma strleb_total a b : strleb a b = true \/ strleb b a = true.
Proof. apply IRInst.lexleb_total. Qed.
Lemma strleb_trans a b c : strleb a b = true -> strleb b c = true -> strleb a c = true.
Proof. apply IRInst.lexleb_trans. Qed.
Lemma map_ZofN_inj a : forall b, map Z.of_N a = map Z.of_N b -> a = b.
Proof.
  induction a as [|x a IH]; intros [|y b]; simpl; intros E; try discriminate; auto.
  inversion E. f_equal; auto. apply N2Z.inj. auto.
Qed.
Lemma strleb_antisym a b : strleb a b = true -> strleb b a = true -> a = b.
Proof. intros H1 H2. apply map_ZofN_inj. apply IRInst.lexleb_antisym; auto. Qed.

Lemma strleb_common s : forall t1 t2, strleb t1 t2 = true -> strleb (s ++ t1) (s ++ t2) = true.
Proof.
  unfold strleb. induction s as [|x s IH]; intros t1 t2 H; simpl; auto.
  rewrite Z.ltb_irrefl. apply IH. auto.
Qed.

(* ---------------- the pruned search for any signature, label and initial partition ---------------- *)
Lemma children_perm g c : Permutation (children g c) c.
Proof. apply sort_by_perm. Qed.

Lemma fold_visit_best (lab : list N -> str) l : forall a bl bp, fst (fold_left (visit strleb lab) l a) = Some (bl, bp) ->
  (In bp l /\ bl = lab bp) \/ fst a = Some (bl, bp).
Proof.
  induction l as [|p l IH]; intros a bl bp H; simpl in H; auto.
  destruct (IH _ _ _ H) as [[H1 H2]|H1]; [left; split; auto; right; auto|].
  unfold visit in H1. destruct (fst a) as [[bl0 bp0]|] eqn:Ea.
  - destruct (ltb strleb (lab p) bl0); simpl in H1.
    + inversion H1; subst. left. split; auto. left; auto.
    + destruct (eqb strleb (lab p) bl0); simpl in H1; right; congruence.
  - simpl in H1. inversion H1; subst. left. split; auto. left; auto.
Qed.

Section Search.
Variable g : graph.
Variable sig : partition -> N -> list Z.
Variables lab partial : list N -> str.
Variable P0 : partition.
(* the bound used for pruning lies below every label that extends the prefix *)
Hypothesis partial_below : forall pre r, pre <> [] -> strleb (partial pre) (lab (pre ++ r)) = true.
Hypothesis HP0 : vpart (node_ids g) P0.
Hypothesis Hnd : NoDup (node_ids g).

Notation GS := (gsearch _ lexleb sig (rfuel g) (children g) _ strleb lab partial).
Notation LV := (leaves2 _ lexleb sig (rfuel g) (children g)).

Lemma search_is_fold fuel P pre a : GS fuel P pre a = fold_left (visit strleb lab) (LV fuel P pre) a.
Proof.
  apply (gsearch_is_fold _ lexleb sig (rfuel g) (children g) _ strleb strleb_total strleb_trans strleb_antisym lab partial).
  intros f Q pr p Hpr Hin. destruct (leaves2_prefix _ _ _ _ _ _ _ _ _ Hin) as (r & ->). apply partial_below. exact Hpr.
Qed.

Theorem search_best_leaf : exists bp, fst (GS (sfuel g) P0 [] (None, [])) = Some (lab bp, bp) /\ In bp (LV (sfuel g) P0 []).
Proof.
  assert (Hf : fst (GS (sfuel g) P0 [] (None, [])) <> None).
  { apply (gsearch_finds _ lexleb IRInst.lexleb_total IRInst.lexleb_trans IRInst.lexleb_antisym sig (rfuel g) (children g)
             (children_perm g) (node_ids g) Hnd); [exact HP0|].
    unfold sfuel, node_ids. rewrite map_length. lia. }
  destruct (fst (GS (sfuel g) P0 [] (None, []))) as [[bl bp]|] eqn:E; [|congruence].
  rewrite search_is_fold in E. apply fold_visit_best in E.
  destruct E as [[H1 ->]|H]; [|discriminate]. exists bp. auto.
Qed.

Theorem search_leaf_perm p : In p (LV (sfuel g) P0 []) -> Permutation p (node_ids g).
Proof.
  intros Hin.
  apply (leaves2_perm _ lexleb IRInst.lexleb_total IRInst.lexleb_trans IRInst.lexleb_antisym sig (rfuel g) (children g)
           (children_perm g) (node_ids g) Hnd _ _ _ _ HP0) in Hin; auto.
  split; [constructor|intros x []].
Qed.
End Search.

(* ---------------- the model's search is the generic one ---------------- *)
Notation gs g := (gsearch _ lexleb (sigN g) (rfuel g) (children g) _ strleb (nlabel g) (npartial g)).
Notation lv g := (leaves2 _ lexleb (sigN g) (rfuel g) (children g)).

Lemma nsearch_gs g fuel : forall P pre a, nsearch g fuel P pre a = gs g fuel P pre a.
Proof.
  induction fuel as [|f IH]; intros P pre a; [reflexivity|].
  cbn [nsearch gsearch]. unfold nrefine, nvisit, npruned.
  destruct (first_big (refine lexleb (sigN g) (rfuel g) P)); [|reflexivity].
  apply fold_left_ext_in. intros a' v _. destruct (pruned strleb (npartial g) a' (pre ++ [v])); auto.
Qed.

Lemma nsearch_tr_fst g fuel : forall P pre s, fst (nsearch_tr g fuel P pre s) = nsearch g fuel P pre (fst s).
Proof.
  induction fuel as [|f IH]; intros P pre s; [reflexivity|].
  cbn [nsearch nsearch_tr].
  destruct (first_big (nrefine g P)) as [i|]; [|reflexivity].
  set (l := children g (nth i (nrefine g P) [])). clearbody l.
  change (fst s) with (fst (fst s, snd s ++ [(P, nrefine g P)])) at 2.
  generalize (fst s, snd s ++ [(P, nrefine g P)]). intros s0. revert s0.
  induction l as [|v l IHl]; intros s0; cbn [fold_left]; auto.
  rewrite IHl. f_equal. unfold trace in *.
  destruct (npruned g (fst s0) (pre ++ [v])); [reflexivity|apply IH].
Qed.

(* ---------------- labels: the partial label is a lower bound ---------------- *)
Lemma join_app sep xs ys : xs <> [] ->
  join sep (xs ++ ys) = join sep xs ++ match ys with [] => [] | _ => sep :: join sep ys end.
Proof.
  induction xs as [|x xs IH]; intros H; [congruence|].
  destruct xs as [|x2 xs].
  - simpl. destruct ys; [rewrite app_nil_r; reflexivity|reflexivity].
  - change (join sep ((x :: x2 :: xs) ++ ys)) with (x ++ sep :: join sep ((x2 :: xs) ++ ys)).
    rewrite IH by discriminate.
    change (join sep (x :: x2 :: xs)) with (x ++ sep :: join sep (x2 :: xs)).
    rewrite <- app_assoc. reflexivity.
Qed.

Lemma partial_lb_str g pre r : pre <> [] -> strleb (npartial g pre) (nlabel g (pre ++ r)) = true.
Proof.
  intros Hpre. unfold npartial, nlabel, node_seg. rewrite map_app, join_app by (destruct pre; simpl; congruence).
  rewrite <- app_assoc. apply strleb_common.
  change (repeat 123%N 1000) with (123%N :: repeat 123%N 999).
  destruct (map (node_str g) r); reflexivity.
Qed.

Lemma partial_lb g fuel P pre p : pre <> [] -> In p (lv g fuel P pre) -> strleb (npartial g pre) (nlabel g p) = true.
Proof.
  intros Hpre Hin. destruct (leaves2_prefix _ _ _ _ _ _ _ _ _ Hin) as (r & ->). apply partial_lb_str. auto.
Qed.

Theorem nsearch_is_fold g fuel P pre a :
  nsearch g fuel P pre a = fold_left (visit strleb (nlabel g)) (lv g fuel P pre) a.
Proof. rewrite nsearch_gs. apply search_is_fold. apply partial_lb_str. Qed.

(* ---------------- the initial partition is an ordered partition of the node set ---------------- *)
Lemma sorted_ids_perm g : Permutation (sorted_ids g) (node_ids g).
Proof. apply sort_by_perm. Qed.

Lemma init_cells_vpart (g : graph) (code : N -> list Z) : gnodes g <> [] ->
  vpart (node_ids g) (split_cell lexleb (fun _ v => code v) [] (sorted_ids g)).
Proof.
  intros Hne. split.
  - eapply perm_trans; [apply (split_cell_perm _ lexleb IRInst.lexleb_total IRInst.lexleb_trans IRInst.lexleb_antisym)|].
    apply sorted_ids_perm.
  - apply (split_cell_nonempty _ lexleb IRInst.lexleb_total IRInst.lexleb_antisym).
    intro H. pose proof (Permutation_length (sorted_ids_perm g)) as Hl. rewrite H in Hl.
    unfold node_ids in Hl. rewrite map_length in Hl. destruct (gnodes g); [congruence|discriminate].
Qed.
Lemma init_vpart g : vpart (node_ids g) (init_partition g).
Proof.
  unfold init_partition. destruct (gnodes g) as [|p l] eqn:E.
  - unfold node_ids. rewrite E. split; simpl; auto.
  - apply init_cells_vpart. rewrite E. discriminate.
Qed.

(* ---------------- the best permutation is a leaf, hence a permutation of the nodes ---------------- *)
Theorem nauty_perm_leaf g : NoDup (node_ids g) ->
  In (nauty_perm g) (lv g (sfuel g) (init_partition g) []) /\ nauty_label g = Some (nlabel g (nauty_perm g)).
Proof.
  intros Hnd. unfold nauty_perm, nauty_label, nauty_acc. rewrite nsearch_gs.
  destruct (search_best_leaf g (sigN g) _ _ _ (partial_lb_str g) (init_vpart g) Hnd) as (bp & -> & I). auto.
Qed.

Theorem nauty_perm_perm g : NoDup (node_ids g) -> Permutation (nauty_perm g) (node_ids g).
Proof. intros Hnd. apply (search_leaf_perm g (sigN g) _ (init_vpart g) Hnd). apply nauty_perm_leaf. exact Hnd. Qed.

(* ---------------- faithful / onto ---------------- *)
Theorem faithful_nauty g : NoDup (node_ids g) -> faithful g (canon_nauty g).
Proof. intros Hnd. apply relabel_order_spec; [exact Hnd|apply nauty_perm_perm; exact Hnd]. Qed.

Theorem onto_nauty g : NoDup (node_ids g) -> onto_1N g (canon_nauty g).
Proof. intros Hnd. apply relabel_order_spec; [exact Hnd|apply nauty_perm_perm; exact Hnd]. Qed.

(* non-vacuity: C-O=C, two carbons with tied node keys told apart by the bond orders; the canonical ids are 1..3 *)
Example ex_nauty_ids : node_ids (canon_nauty ex_g) = [1%N; 3%N; 2%N] /\ NoDup (node_ids ex_g)
                       /\ length (snd (nauty_acc ex_g)) = 1.
Proof. split; [vm_compute; reflexivity|]. split; [exact (proj2 ex_generic_ids)|vm_compute; reflexivity]. Qed.

Print Assumptions faithful_nauty.
Print Assumptions onto_nauty.
