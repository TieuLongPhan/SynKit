(** C11 (round 5) — the order of the reported lists (model/C11_Order.v): [sorted_orbits] is a permutation of the orbit
    set, sorted by the key (size, joined sorted numerals), and - when the keys of the members are pairwise distinct - it
    does not depend on the order in which the set was enumerated (Python iterates a set of frozensets in an unspecified
    order; the model uses the order of discovery).  Stdlib lists. *)
From Coq Require Import List NArith Arith Bool Lia Permutation Sorted.
From SK Require Import lib.Tok lib.StrJoin model.C11_Model model.C11_Orbit model.C11_Order proof.C11_Aut proof.C11_WL proof.C11_Comp
     proof.C11_OrbitProof.
Import ListNotations.

(** ---------- the string order and the key order are lexicographic ---------- *)
Lemma str_leb_total a : forall b, str_leb a b = false -> str_leb b a = true.
Proof.
  induction a as [|x a IH]; intros [|y b]; simpl; try discriminate; try reflexivity.
  rewrite <- not_true_iff_false, !lexN_spec. intros H. destruct (str_leb a b) eqn:E; [|rewrite (IH b E)]; lia.
Qed.

Lemma str_leb_trans a : forall b c, str_leb a b = true -> str_leb b c = true -> str_leb a c = true.
Proof.
  induction a as [|x a IH]; intros [|y b] [|z c]; simpl; try discriminate; try reflexivity.
  intros H1 H2. apply lexN_spec in H1, H2. apply lexN_spec. destruct H1 as [H1|[-> H1]], H2 as [H2|[-> H2]];
    [left; exact (N.lt_trans _ _ _ H1 H2) | left; exact H1 | left; exact H2 | right].
  split; [reflexivity | exact (IH b c H1 H2)].
Qed.

Lemma str_leb_antisym a : forall b, str_leb a b = true -> str_leb b a = true -> a = b.
Proof.
  induction a as [|x a IH]; intros [|y b]; simpl; try discriminate; try reflexivity.
  rewrite !lexN_spec. intros [H1|[-> H1]] [H2|[E2 H2]]; try lia. f_equal. exact (IH b H1 H2).
Qed.

Lemma key2_spec a b : key2_leb a b = true <-> (fst a < fst b \/ (fst a = fst b /\ str_leb (snd a) (snd b) = true))%nat.
Proof. apply lexnat_spec. Qed.

Lemma key2_total a b : key2_leb a b = false -> key2_leb b a = true.
Proof.
  rewrite <- not_true_iff_false, !key2_spec. intros H.
  destruct (str_leb (snd a) (snd b)) eqn:E; [|rewrite (str_leb_total _ _ E)]; lia.
Qed.

Lemma key2_trans a b c : key2_leb a b = true -> key2_leb b c = true -> key2_leb a c = true.
Proof.
  intros H1 H2. apply key2_spec in H1, H2. apply key2_spec. destruct a as [n s], b as [m t], c as [p r]; simpl in *.
  destruct H1 as [H1|[-> H1]], H2 as [H2|[-> H2]];
    [left; exact (Nat.lt_trans _ _ _ H1 H2) | left; exact H1 | left; exact H2 | right].
  split; [reflexivity | exact (str_leb_trans _ _ _ H1 H2)].
Qed.

Lemma key2_antisym a b : key2_leb a b = true -> key2_leb b a = true -> a = b.
Proof.
  rewrite !key2_spec. destruct a as [n s], b as [m t]; simpl. intros [H1|[-> H1]] [H2|[E2 H2]]; try lia.
  f_equal. exact (str_leb_antisym s t H1 H2).
Qed.

Lemma group_total a b : group_leb a b = false -> group_leb b a = true.
Proof.
  unfold group_leb. destruct (Nat.ltb_spec (length a) (length b)); [discriminate|].
  destruct (Nat.eqb_spec (length a) (length b)) as [E|Hne].
  - rewrite E, Nat.ltb_irrefl, Nat.eqb_refl. intros Hle. apply N.leb_gt in Hle. apply N.leb_le. lia.
  - intros _. destruct (Nat.ltb_spec (length b) (length a)); [reflexivity | lia].
Qed.

(** ---------- the theorem ---------- *)
Theorem orbit_order (O : list (list N)) (cs : colouring) :
  Permutation (sorted_orbits O) O /\
  (forall o, In o (sorted_orbits O) <-> In o O) /\
  Sorted (fun a b => orbit_leb a b = true) (sorted_orbits O) /\
  (forall O', Permutation O O' -> NoDup (map okey O) -> sorted_orbits O' = sorted_orbits O) /\
  Permutation (wl_groups cs) (map sortN (wl_orbits cs)) /\
  Sorted (fun a b => group_leb a b = true) (wl_groups cs) /\
  (forall u j, wl_orbit_index cs u = Some j ->
     In (nth (N.to_nat j) (wl_orbits cs) []) (wl_orbits cs) /\ In u (nth (N.to_nat j) (wl_orbits cs) [])) /\
  (forall u, (exists o, In o (wl_orbits cs) /\ In u o) -> exists j, wl_orbit_index cs u = Some j).
Proof.
  assert (P : Permutation (sorted_orbits O) O) by apply sort_by_perm.
  split; [exact P|]. split; [|split; [|split; [|split; [|split; [|split]]]]].
  - intros o. split; intros H; [exact (Permutation_in _ P H) | exact (Permutation_in _ (Permutation_sym P) H)].
  - apply sort_by_sorted. intros a b. apply key2_total.
  - intros O' PO Hnd. unfold sorted_orbits. apply sort_by_unique.
    + intros a b. apply key2_total.
    + intros a b c. apply key2_trans.
    + exact PO.
    + intros a b Ha Hb H1 H2. apply (NoDup_map_inj_in okey O a b Hnd Ha Hb). apply key2_antisym; assumption.
  - apply sort_by_perm.
  - apply sort_by_sorted. apply group_total.
  - intros u j H. exact (node_to_member (wl_orbits cs) u j H).
  - intros u H. exact (node_to_covered (wl_orbits cs) u H).
Qed.

(** non-vacuity: ids 9, 10, 100 - the numerals sort as strings ("10" < "100" < "9"), the orbit {9} comes after {10}
    although 9 < 10; the result does not depend on the order of discovery *)
Example ex_order :
  repr_N 0 = [48]%N /\ repr_N 120 = [49; 50; 48]%N /\
  sorted_orbits [[9]; [10]; [100; 5]]%N = [[10]; [9]; [100; 5]]%N /\
  sorted_orbits [[100; 5]; [10]; [9]]%N = [[10]; [9]; [100; 5]]%N /\
  NoDup (map okey [[9]; [10]; [100; 5]]%N) /\
  snd (okey [100; 5; 9]%N) = [49; 48; 48; 124; 53; 124; 57]%N.
Proof.
  vm_compute. repeat split.
  repeat constructor; simpl; intuition discriminate.
Qed.

Lemma run_aut_full_eq (g : graph) :
  run_aut_full g = L [ run_aut g; tbool (wfb g); tlist t_maps (aut_lists g); run_aut_oa g; run_order g ].
Proof. unfold run_aut_full, run_aut, aut_lists, run_aut_oa, run_order. cbv zeta. rewrite analyze_comps. reflexivity. Qed.

(** ---------- repr_N is the decimal numeral ---------- *)
Definition digit_step (a d : N) : N := (10 * a + (d - 48))%N.
Definition numeral_value (ds : list N) : N := fold_left digit_step ds 0%N.

Lemma pos_size_gt p : (N.pos p < 2 ^ N.of_nat (Pos.size_nat p))%N.
Proof.
  induction p as [p IH|p IH|]; simpl Pos.size_nat.
  - rewrite Nat2N.inj_succ, N.pow_succ_r'. lia.
  - rewrite Nat2N.inj_succ, N.pow_succ_r'. lia.
  - simpl. lia.
Qed.

Lemma size_nat_gt n : (n < 2 ^ N.of_nat (N.size_nat n))%N.
Proof. destruct n as [|p]; [simpl; lia | apply pos_size_gt]. Qed.

Lemma digits_S f n acc :
  digits (S f) n acc = if (n / 10 =? 0)%N then (48 + n mod 10)%N :: acc else digits f (n / 10)%N ((48 + n mod 10)%N :: acc).
Proof. reflexivity. Qed.

Lemma digits_app f : forall n acc, digits f n acc = digits f n [] ++ acc.
Proof.
  induction f as [|f IH]; intros n acc; [reflexivity|]. rewrite !digits_S.
  destruct (n / 10 =? 0)%N; [reflexivity|].
  rewrite (IH (n / 10)%N ((48 + n mod 10)%N :: acc)), (IH (n / 10)%N [(48 + n mod 10)%N]), <- app_assoc. reflexivity.
Qed.

Lemma digits_spec f : forall n, (n < 2 ^ N.of_nat f)%N ->
  numeral_value (digits (S f) n []) = n /\
  Forall (fun d => 48 <= d <= 57)%N (digits (S f) n []) /\
  digits (S f) n [] <> [] /\
  (n <> 0%N -> hd 0%N (digits (S f) n []) <> 48%N).
Proof.
  induction f as [|f IH]; intros n Hn.
  - simpl in Hn. assert (n = 0%N) by lia. subst n. cbn. repeat split; try lia; try discriminate.
    constructor; [lia | constructor].
  - (* everything below is linear in the quotient and the remainder *)
    rewrite (digits_S (S f) n []). rewrite Nat2N.inj_succ, N.pow_succ_r' in Hn.
    pose proof (N.div_mod n 10 ltac:(discriminate)) as Hdm. pose proof (N.mod_lt n 10 ltac:(discriminate)) as Hr.
    revert Hdm Hr. generalize (n / 10)%N (n mod 10)%N. intros q r Hdm Hr.
    destruct (N.eqb_spec q 0) as [E|E].
    + unfold numeral_value, digit_step. cbn [fold_left hd].
      split; [lia|]. split; [constructor; [lia | constructor]|]. split; [discriminate | lia].
    + destruct (IH q ltac:(lia)) as (V & F & NE & HD).
      rewrite (digits_app (S f) q [(48 + r)%N]).
      split; [|split; [|split]].
      * unfold numeral_value in *. rewrite fold_left_app, V. cbn [fold_left]. unfold digit_step. lia.
      * apply Forall_app. split; [exact F | constructor; [lia | constructor]].
      * intros H. apply app_eq_nil in H. destruct H as [_ H]. discriminate.
      * intros _. destruct (digits (S f) q []) as [|d l] eqn:Ed; [contradiction|]. exact (HD E).
Qed.

Theorem repr_N_spec (n : N) :
  numeral_value (repr_N n) = n /\ Forall (fun d => 48 <= d <= 57)%N (repr_N n) /\ repr_N n <> [] /\
  (n <> 0%N -> hd 0%N (repr_N n) <> 48%N) /\ ~ In 124%N (repr_N n).
Proof.
  unfold repr_N. destruct (digits_spec (N.size_nat n) n (size_nat_gt n)) as (V & F & NE & HD).
  split; [exact V|]. split; [exact F|]. split; [exact NE|]. split; [exact HD|].
  intros Hin. rewrite Forall_forall in F. specialize (F _ Hin). lia.
Qed.

Corollary repr_N_inj n m : repr_N n = repr_N m -> n = m.
Proof.
  intros E. destruct (repr_N_spec n) as (Vn & _). destruct (repr_N_spec m) as (Vm & _). rewrite <- Vn, <- Vm, E. reflexivity.
Qed.

(** ---------- the key determines the orbit (as a set): the order of the reported list is canonical ---------- *)
Lemma okey_inj o o' : okey o = okey o' -> forall x, In x o <-> In x o'.
Proof.
  unfold okey. intros E. inversion E as [[El Ej]]. clear E.
  set (L := sort_by str_leb (map repr_N (canonN o))) in *. set (L' := sort_by str_leb (map repr_N (canonN o'))) in *.
  assert (P : Permutation L (map repr_N (canonN o))) by apply sort_by_perm.
  assert (P' : Permutation L' (map repr_N (canonN o'))) by apply sort_by_perm.
  assert (Hno : forall M l, Permutation M (map repr_N l) -> Forall (nosep 124%N) M).
  { intros M l PM. apply Forall_forall. intros z Hz. apply (Permutation_in _ PM) in Hz.
    apply in_map_iff in Hz. destruct Hz as (y & <- & _). exact (proj2 (proj2 (proj2 (proj2 (repr_N_spec y))))). }
  assert (Hmem : forall a b, Permutation (map repr_N (canonN a)) (map repr_N (canonN b)) -> forall x, In x a -> In x b).
  { intros a b PM x Hx. apply canonN_in. apply canonN_in in Hx.
    assert (Hin : In (repr_N x) (map repr_N (canonN b))) by (apply (Permutation_in _ PM); apply in_map; exact Hx).
    apply in_map_iff in Hin. destruct Hin as (y & Ey & Hy). apply repr_N_inj in Ey. subst y. exact Hy. }
  destruct (canonN o) as [|a r] eqn:Eo.
  - destruct (canonN o') as [|a' r'] eqn:Eo'; [|simpl in El; discriminate].
    intros x. rewrite <- (canonN_in o x), <- (canonN_in o' x), Eo, Eo'. tauto.
  - destruct (canonN o') as [|a' r'] eqn:Eo'; [simpl in El; discriminate|].
    assert (EL : L = L').
    { apply (@join_inj 124%N L L'); [exact (Hno L _ P) | exact (Hno L' _ P') | | | exact Ej].
      - intros H. rewrite H in P. apply Permutation_nil in P. discriminate.
      - intros H. rewrite H in P'. apply Permutation_nil in P'. discriminate. }
    assert (PM : Permutation (map repr_N (canonN o)) (map repr_N (canonN o'))).
    { rewrite Eo, Eo'. apply Permutation_trans with L; [apply Permutation_sym; exact P | rewrite EL; exact P']. }
    intros x. split; [apply (Hmem o o' PM) | apply (Hmem o' o (Permutation_sym PM))].
Qed.

Lemma keys_nodup (O : list (list N)) :
  NoDup O -> (forall o1 o2, In o1 O -> In o2 O -> (forall x, In x o1 <-> In x o2) -> o1 = o2) -> NoDup (map okey O).
Proof.
  intros Hnd Hext. apply (inj_in_NoDup_map okey O Hnd). intros a b Ha Hb E. apply Hext; [exact Ha | exact Hb | exact (okey_inj a b E)].
Qed.

Theorem reported_order_canonical (fn : nlab -> N) (fe : elab -> N) (g : graph) : LGraph.wf g ->
  NoDup (map okey (a_orbits (analyze fn fe g))) /\
  forall O', Permutation (a_orbits (analyze fn fe g)) O' -> sorted_orbits O' = sorted_orbits (a_orbits (analyze fn fe g)).
Proof.
  intros Hwf. destruct (orbits_partition_all fn fe g Hwf) as (_ & _ & P3 & P4 & _).
  assert (Hk : NoDup (map okey (a_orbits (analyze fn fe g)))).
  { apply keys_nodup; [exact P4|]. intros o1 o2 H1 H2 Hsame.
    destruct o1 as [|x r].
    - destruct o2 as [|y r']; [reflexivity|]. exfalso. apply (proj2 (Hsame y)). left. reflexivity.
    - apply (P3 (x :: r) o2 x H1 H2); [left; reflexivity | apply Hsame; left; reflexivity]. }
  split; [exact Hk|]. intros O' PO. exact (proj1 (proj2 (proj2 (proj2 (orbit_order (a_orbits (analyze fn fe g)) []))) ) O' PO Hk).
Qed.

(** the attribute-dictionary observable of an [aut] case is the same composition on [to_graph DEF_NODE DEF_EDGE ag], with the
    4-attribute estimate on [to_graph WL4 DEF_EDGE ag] *)
From SK Require Import model.C11_Attr model.C11_AttrFull.
Lemma run_aut_full_attr_eq (ag : agraph) :
  let g4 := to_graph WL4 DEF_EDGE ag in
  let gx := to_graph DEF_NODE DEF_EDGE ag in
  let a := analyze n_exact e_order gx in
  run_aut_full_attr ag =
  L [ L [ tN (a_count a); t_sets (a_orbits a); tlist (tset tN) (a_comps a); topt (tset tN) (a_anchor a);
          wl_obs n_wl g4; wl_obs n_exact gx ];
      tbool (wfb gx); tlist t_maps (aut_lists gx); run_aut_oa gx; run_order gx ].
Proof. unfold run_aut_full_attr, aut_lists, run_aut_oa, run_order. cbv zeta. rewrite analyze_comps. reflexivity. Qed.
