(** C04 — the default mode through the whole reactor object with NO premise about _explicit_h: every mapping the pruning keeps
    is a monomorphism the engine returned (C06), hence a valid match of the rule (proof/C04_MonoMatch.v), and _explicit_h
    returns on the ITS glued along any valid match (proof/C04_TotalDefault.v) when the template's hydrogens satisfy [valence_okb];
    the same with C06's verified enumerator in the place of VF2. *)
From Coq Require Import List NArith ZArith Bool Lia.
From SK Require Import lib.LGraph model.C06_Model lib.C06_Spec proof.C06_All proof.C11_Dedup model.C03_Model model.C04_Model model.C04_Reactor
                       proof.C03_Proof proof.C04_Glue proof.C04_Default proof.C04_DefaultProof proof.C04_Engine proof.C04_Chain proof.C04_DefaultChain
                       proof.C04_TotalDefault proof.C03_StripCor proof.C04_CompBt proof.C04_Proof proof.C04_MonoMatch.
Import ListNotations.
Local Open Scope Z_scope.

(** the substrate with implicit hydrogens has no negative hydrogen count *)
Lemma folded_hc_nonneg (A B : hostg) (tpl : its) : pair_wf A B -> default_okb A B tpl = true ->
  forall n x, label (h_to_implicit_host A) n = Some x -> 0 <= a_hc x.
Proof.
  intros PW OK n x Ex. destruct (default_okb_foldable A B tpl PW OK) as [FA _].
  destruct (fold_host_spec A (wf_host_nodup A (pw_A _ _ PW)) FA) as (_ & _ & FAA). set (R := rev (h_nodes_h A)) in *.
  destruct (folded_label_elim A _ R FAA n x Ex) as (_ & x0 & E0 & ->).
  destruct (in_ids_label B n (proj1 (pw_ids _ _ PW n) (label_some_in A n x0 E0))) as [y0 Ey0].
  destruct (dE12 A B tpl OK n x0 y0 E0 Ey0) as [_ H0]. unfold bumpk, set_hc; simpl.
  pose proof (sum_cnt_nonneg (gedges A) R n). unfold hsum. lia.
Qed.

(** a monomorphism of the stripped pattern into the own substrate is a match of the prepared rule, hence _explicit_h returns on
    the ITS glued along it *)
Lemma default_mono_total (core invert : bool) (G H : hostg) (rc : its) (l r : molg) (y : C03_Model.mapping) (T : its) :
  pair_wfb G H = true -> mode_E G H = true ->
  default_okb (if invert then H else G) (if invert then G else H) (template core invert G H) = true ->
  (core = true -> centre_carries (its_construct G H) = true) ->
  own_valence_okb core invert G H = true ->
  rule_of core invert G H = Some (rc, l, r) ->
  forallb (fun p => 0 <=? m_hc (snd p)) (gnodes l) = true ->
  is_mono (tr_host (substrate invert G H)) (tr_pat l) y -> glue (substrate invert G H) rc y = Some T -> explicit_h T <> None.
Proof.
  intros W ME OK CC VAL Er Hnn Hmono Eg.
  pose proof (pair_AB' core invert G H W OK) as PW. pose proof (own_describes core invert G H W OK CC) as D.
  destruct (default_facts core invert G H W ME OK CC rc l r Er) as (PW' & D' & LO & _).
  assert (Es : synrule (template core invert G H) true = Some (rc, l, r)) by (unfold rule_of in Er; rewrite ME in Er; exact Er).
  unfold own_valence_okb in VAL. rewrite Er in VAL.
  assert (Hy : match_rcb (substrate invert G H) rc y = true).
  { apply (mono_is_match _ rc l y (pw_A _ _ PW')).
    - exact (folded_hc_nonneg _ _ _ PW OK).
    - exact (d_wf _ _ _ D').
    - intros u v x I. destruct (d_edges _ _ _ D' u v x I) as (Iu & Iv & _). auto.
    - exact LO.
    - exact (default_left_onto _ rc l r (d_wf _ _ _ D) (tpl_el _ _ _ PW D) Es).
    - intros k la Ela. exact (counts_nonneg _ Hnn k la (assoc_in k (gnodes l) Ela)).
    - exact Hmono. }
  exact (any_match_total _ _ _ rc l r _ y T PW D OK Es (d_wf _ _ _ D') Hy Eg VAL).
Qed.

Section DefaultChainTotal.
  Variable enum : list N -> list N -> list C06_Model.mapping.
  Variable rematch : nat -> hostg -> molg -> list C03_Model.mapping.
  Variables (core invert : bool) (G H : hostg) (thr : option N).
  Hypothesis W : pair_wfb G H = true.
  Hypothesis ME : mode_E G H = true.
  Let A := if invert then H else G.
  Let B := if invert then G else H.
  Let tpl := template core invert G H.
  Hypothesis OK : default_okb A B tpl = true.
  Hypothesis CC : core = true -> centre_carries (its_construct G H) = true.
  Hypothesis VAL : own_valence_okb core invert G H = true.
  Let host := substrate invert G H.
  Let o := own_opts invert true (SMember 0%N) thr false.

  Theorem default_chain_total (rc : its) (l r : molg) :
    rule_of core invert G H = Some (rc, l, r) ->
    forallb (fun p => 0 <=? m_hc (snd p)) (gnodes l) = true ->
    vf2_contract enum (tr_host host) (tr_pat l) (node_ids (tr_host host)) (node_ids (tr_pat l)) ->
    (lenN (enum (node_ids (tr_host host)) (node_ids (tr_pat l))) <= dflt DEFAULT_THRESHOLD thr)%N ->
    exists gs T', fst (read_its (api_engine enum) rematch o host (rc, l, r) fresh) = Some gs /\ In T' gs /\
                  regen_folded T' A B = true.
  Proof.
    intros Er Hnn Hvf2 Hthr.
    apply (default_chain enum rematch core invert G H thr W ME OK CC rc l r Er Hnn Hvf2 Hthr).
    intros ms Em.
    destruct (default_facts core invert G H W ME OK CC rc l r Er) as (_ & _ & _ & Hf).
    (* the kept mappings are monomorphisms the engine returned *)
    unfold compute_mappings in Em. cbn [fst snd] in Em. unfold pattern_of in Em. rewrite Hf in Em.
    cbn [o own_opts o_strategy o_thr o_pref] in Em.
    change (api_engine enum (SMember 0%N) thr false (tr_host host) (tr_pat l))
      with (Result (C06_Model.find enum (Cfg 0 0 (dflt DEFAULT_THRESHOLD thr) true false) (tr_host host) (tr_pat l))) in Em.
    inversion Em as [Ems]. clear Em.
    destruct (all_exact enum (dflt DEFAULT_THRESHOLD thr) true (tr_host host) (tr_pat l) Hvf2 Hthr) as (Hsound & _ & _).
    unfold crashed. cbn [o own_opts o_explicit_h andb].
    apply explicit_all_ok. intros T IT. apply (glued_val_in rematch _ rc l r _ T Hf) in IT. destruct IT as (y & Iy & Eg).
    apply (default_mono_total core invert G H rc l r y T W ME OK CC VAL Er Hnn); [|exact Eg].
    apply Hsound. exact (subseq_in _ _ y (prune_subseq C03_Model.mapping (fun m => m) (rule_graph rc) _) Iy).
  Qed.
End DefaultChainTotal.

(** * in the default mode the hydrogen counts of the stripped pattern are bond counts, hence not negative: the premise
    "pattern counts >= 0" of the engine theorems follows from the precondition. *)
Theorem default_pattern_nonneg (core invert : bool) (G H : hostg) (rc : its) (l r : molg) :
  pair_wfb G H = true -> mode_E G H = true ->
  default_okb (if invert then H else G) (if invert then G else H) (template core invert G H) = true ->
  (core = true -> centre_carries (its_construct G H) = true) ->
  rule_of core invert G H = Some (rc, l, r) ->
  forallb (fun p => 0 <=? m_hc (snd p)) (gnodes l) = true.
Proof.
  intros W ME OK CC Er.
  pose proof (pair_AB' core invert G H W OK) as PW. pose proof (own_describes core invert G H W OK CC) as D.
  set (A := if invert then H else G) in *. set (B := if invert then G else H) in *. set (tpl := template core invert G H) in *.
  assert (Es : synrule tpl true = Some (rc, l, r)) by (unfold rule_of in Er; rewrite ME in Er; exact Er).
  destruct (default_rule_spec A B tpl PW D OK rc l r Es) as (R & _ & _ & _ & _ & _ & RCi & RCa & _).
  pose proof (default_left_of tpl rc l r (tpl_nodupb A B tpl D) (tpl_el A B tpl PW D) Es) as LO.
  apply forallb_forall. intros [k la] I. cbn [snd]. apply Z.leb_le.
  destruct (lo_nodes _ _ LO k la I) as (a & Ea & _ & _ & E3). rewrite E3.
  destruct (proj1 (RCi k) (label_some_in rc k a Ea)) as [Ik NR].
  destruct (in_ids_label tpl k Ik) as [a0 Ea0]. destruct (RCa k a0 Ea0 NR) as (a' & Ea' & _ & _ & _ & _ & C1 & _).
  rewrite Ea in Ea'. inversion Ea'; subst a'. rewrite C1. apply sum_cnt_nonneg.
Qed.

(** * the chain with C06's VERIFIED enumerator in the place of VF2: no premise about the enumeration is left (its contract is a
    theorem, C06_enumerator_meets_contract), only the threshold.  This is the instance the correspondence runs when it
    enumerates the raw matches itself. *)
Lemma verified_contract (H P : C06_Model.graph) : gwf P -> NoDup (node_ids H) ->
  vf2_contract (monos_on H P) H P (node_ids H) (node_ids P).
Proof. intros GP NH. exact (monos_on_contract H P GP (node_ids H) (node_ids P) NH (proj1 GP)). Qed.

(** implicit mode *)
Theorem chain_verified_implicit (rematch : nat -> hostg -> molg -> list C03_Model.mapping) (ser : nat -> its -> option bytes * option bytes)
    (core invert : bool) (G H : hostg) (thr : option N) :
  pair_wfb G H = true -> no_explicit_H G = true ->
  (core = true -> centre_carries (its_construct G H) = true) ->
  let tpl := template core invert G H in
  let l := dec_side iG eG tpl in
  let host := substrate invert G H in
  let enum := monos_on (tr_host host) (tr_pat (pattern_of l)) in
  forallb (fun p => 0 <=? m_hc (snd p)) (gnodes (pattern_of l)) = true ->
  (lenN (enum (node_ids (tr_host host)) (node_ids (tr_pat (pattern_of l)))) <= dflt DEFAULT_THRESHOLD thr)%N ->
  exists gs T, fst (read_its (api_engine enum) rematch (own_opts invert false (SMember 0%N) thr false) host
                             (tpl, l, dec_side iH eH tpl) fresh) = Some gs /\
               In T gs /\ regen_exact T (if invert then H else G) (if invert then G else H) = true.
Proof.
  intros W NH CC tpl l host enum Hnn Hthr.
  assert (PL : pattern_of l = l) by exact (pattern_is_left core invert G H W NH).
  assert (SA : host = if invert then H else G) by exact (substrate_is_A core invert G H W NH).
  assert (Hc : vf2_contract enum (tr_host host) (tr_pat (pattern_of l)) (node_ids (tr_host host)) (node_ids (tr_pat (pattern_of l)))).
  { apply verified_contract.
    - rewrite PL. exact (own_gwf_pat core invert G H W NH CC).
    - rewrite SA. exact (proj1 (own_gwf_host core invert G H W NH CC)). }
  destruct (chain_its enum rematch core invert G H thr W NH CC Hnn Hc Hthr) as (gs & T & E & I & R). exists gs, T. auto.
Qed.

(** default mode *)
Theorem chain_verified_default (rematch : nat -> hostg -> molg -> list C03_Model.mapping)
    (core invert : bool) (G H : hostg) (thr : option N) :
  pair_wfb G H = true -> mode_E G H = true ->
  default_okb (if invert then H else G) (if invert then G else H) (template core invert G H) = true ->
  (core = true -> centre_carries (its_construct G H) = true) ->
  own_valence_okb core invert G H = true ->
  forall (rc : its) (l r : molg), rule_of core invert G H = Some (rc, l, r) ->
  let host := substrate invert G H in
  let enum := monos_on (tr_host host) (tr_pat l) in
  (lenN (enum (node_ids (tr_host host)) (node_ids (tr_pat l))) <= dflt DEFAULT_THRESHOLD thr)%N ->
  exists gs T', fst (read_its (api_engine enum) rematch (own_opts invert true (SMember 0%N) thr false) host (rc, l, r) fresh) = Some gs /\
                In T' gs /\ regen_folded T' (if invert then H else G) (if invert then G else H) = true.
Proof.
  intros W ME OK CC VAL rc l r Er host enum Hthr.
  destruct (default_facts core invert G H W ME OK CC rc l r Er) as (PW' & D' & LO & _).
  apply (default_chain_total enum rematch core invert G H thr W ME OK CC VAL rc l r Er (default_pattern_nonneg core invert G H rc l r W ME OK CC Er)); [|exact Hthr].
  apply verified_contract.
  - exact (gwf_tr_pat_describes _ _ rc l D' LO).
  - exact (proj1 (default_gwf_host core invert G H W OK)).
Qed.
