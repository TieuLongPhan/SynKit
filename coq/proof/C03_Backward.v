(** C03 — the backward direction (_invert_template) and the template the reactor glues in implicit-template mode
    (SynRule.__init__ with implicit_h=False). *)
From Coq Require Import List NArith ZArith Bool Lia.
From SK Require Import lib.Tok lib.LGraph model.C03_Model proof.C03_Proof proof.C03_Glue.
Import ListNotations.
Local Open Scope Z_scope.

(** * _invert_template swaps the two sides of the decomposition — literally, as lists *)
Lemma flat_map_flat_map {A B C} (f : B -> list C) (g : A -> list B) l :
  flat_map f (flat_map g l) = flat_map (fun a => flat_map f (g a)) l.
Proof. induction l as [|a r IH]; simpl; [reflexivity|]. rewrite flat_map_app, IH. reflexivity. Qed.

Lemma invert_decompose T : its_decompose (invert_template T) = (snd (its_decompose T), fst (its_decompose T)).
Proof.
  unfold its_decompose, dec_side, invert_template. cbn [gnodes gedges fst snd]. rewrite !map_map, !flat_map_flat_map.
  (* the node lists are convertible; an edge contributes to a side of the inverted graph what it did to the other side *)
  apply f_equal2; apply f_equal2; try reflexivity; apply flat_map_ext; intros [[u v] x];
    destruct (0 <? eH x) eqn:E1, (0 <? eG x) eqn:E2; cbn [orb flat_map app eG eH fst snd]; rewrite ?E1, ?E2; reflexivity.
Qed.

(** * nodes: the two tuples change places *)
Definition inv_node (a : inode) : inode := IN (inv_tuple (iH a)) (inv_tuple (iG a)) 0 None.
Lemma invert_gnodes T : gnodes (invert_template T) = map (fun p => (fst p, inv_node (snd p))) (gnodes T).
Proof. reflexivity. Qed.
Lemma invert_ids T : node_ids (invert_template T) = node_ids T.
Proof. unfold node_ids. rewrite invert_gnodes, map_map. reflexivity. Qed.
Lemma assoc_map {V W} (f : V -> W) (l : list (N * V)) k :
  assoc k (map (fun p => (fst p, f (snd p))) l) = option_map f (assoc k l).
Proof. induction l as [|[k' v] r IH]; simpl; [reflexivity|]. destruct (N.eqb k k'); [reflexivity|exact IH]. Qed.
Lemma invert_label T n : label (invert_template T) n = option_map inv_node (label T n).
Proof. unfold label. rewrite invert_gnodes. apply assoc_map. Qed.

Lemma sumL_opp {V} (f : V -> Z) (l : list (N * V)) : sumL (fun a => - f a) l = - sumL f l.
Proof. induction l as [|[k v] r IH]; simpl; [reflexivity|]. rewrite IH. lia. Qed.

Lemma invert_sum_dH T : sumZ dH (invert_template T) = - sumZ dH T.
Proof.
  unfold sumZ. rewrite invert_gnodes, (sumL_map dH inv_node), <- sumL_opp. apply sumL_ext_in.
  intros k a _. unfold dH, inv_node; simpl. lia.
Qed.
Lemma invert_sum_dQ T : sumZ dQ (invert_template T) = - sumZ dQ T.
Proof.
  unfold sumZ. rewrite invert_gnodes, (sumL_map dQ inv_node), <- sumL_opp. apply sumL_ext_in.
  intros k a _. unfold dQ, inv_node; simpl. lia.
Qed.
Lemma invert_balanced T : balancedb (invert_template T) = balancedb T.
Proof.
  unfold balancedb. rewrite invert_sum_dH, invert_sum_dQ.
  f_equal; [destruct (Z.eqb_spec (sumZ dH T) 0), (Z.eqb_spec (- sumZ dH T) 0)|destruct (Z.eqb_spec (sumZ dQ T) 0), (Z.eqb_spec (- sumZ dQ T) 0)];
    try reflexivity; lia.
Qed.

(** * edges: every bond keeps its end atoms, its two orders change places, standard_order = order_G - order_H;
      pairs bonded on neither side disappear *)
Lemma invert_edge_in T u v x :
  In (u, v, x) (gedges T) -> 0 <= eG x -> 0 <= eH x -> 0 < eG x \/ 0 < eH x ->
  In (u, v, (eH x, eG x, eH x - eG x)) (gedges (invert_template T)).
Proof.
  intros I H1 H2 H3. unfold invert_template; simpl. apply in_flat_map. exists (u, v, x). split; [exact I|].
  destruct (Z.ltb_spec 0 (eH x)), (Z.ltb_spec 0 (eG x)); simpl; try (left; repeat f_equal; lia). lia.
Qed.
Lemma invert_edge_inv T u v y :
  In (u, v, y) (gedges (invert_template T)) ->
  exists x, In (u, v, x) (gedges T) /\ (0 < eG x \/ 0 < eH x) /\
            eG y = Z.max 0 (eH x) /\ eH y = Z.max 0 (eG x) /\ eS y = eG y - eH y.
Proof.
  unfold invert_template; simpl. intros I. apply in_flat_map in I. destruct I as ([[u' v'] x] & I & I').
  destruct (Z.ltb_spec 0 (eH x)), (Z.ltb_spec 0 (eG x)); simpl in I'; try contradiction; destruct I' as [I'|[]]; inversion I'; subst;
    exists x; unfold eG, eH, eS in *; simpl; repeat split; auto; lia.
Qed.

(** the backward template is again a well-formed rule *)
Lemma existsb_flat_sub {B C} (P : N -> N -> bool) (c : B -> bool) (f : B -> C) (es : list (N * N * B)) :
  existsb (fun e => let '(u, v, _) := e in P u v) es = false ->
  existsb (fun e => let '(u, v, _) := e in P u v) (flat_map (fun e => let '(u, v, x) := e in if c x then [(u, v, f x)] else []) es) = false.
Proof.
  induction es as [|[[u v] x] r IH]; simpl; [reflexivity|]. intros H. apply orb_false_elim in H. destruct H as [H1 H2].
  destruct (c x); simpl; [rewrite H1|]; auto.
Qed.
Lemma simple_flat_sub {B C} (c : B -> bool) (f : B -> C) (es : list (N * N * B)) :
  simple_edgesb es = true ->
  simple_edgesb (flat_map (fun e => let '(u, v, x) := e in if c x then [(u, v, f x)] else []) es) = true.
Proof.
  induction es as [|[[a b] x] r IH]; simpl; [reflexivity|]. intros H.
  apply andb_prop in H. destruct H as [H H3]. apply andb_prop in H. destruct H as [H1 H2].
  destruct (c x); simpl; [|auto]. rewrite H1, (IH H3). simpl. rewrite andb_true_r.
  apply negb_true_iff in H2. apply negb_true_iff.
  exact (existsb_flat_sub (fun u v => peq u v a b) c f r H2).
Qed.

Lemma invert_simple T : simple_edgesb (gedges T) = true -> simple_edgesb (gedges (invert_template T)) = true.
Proof.
  exact (simple_flat_sub (fun x => (0 <? eH x) || (0 <? eG x))
           (fun x => let g := if 0 <? eH x then eH x else 0 in let h := if 0 <? eG x then eG x else 0 in (g, h, g - h))
           (gedges T)).
Qed.

Lemma invert_wf T : wf_rcb T = true -> wf_rcb (invert_template T) = true.
Proof.
  unfold wf_rcb. intros H. apply andb_prop in H. destruct H as [H H3]. apply andb_prop in H. destruct H as [H1 H2].
  rewrite invert_ids, H1. simpl. apply andb_true_intro. split; [exact (invert_simple T H2)|].
  apply forallb_forall. intros [[u v] y] I. destruct (invert_edge_inv T u v y I) as (x & _ & _ & E1 & E2 & _).
  simpl. rewrite E1, E2. apply andb_true_intro. split; apply Z.leb_le; lia.
Qed.

(** * Backward application, put together: gluing the inverted template on a substrate [host] (the PRODUCT of the
      proposed reaction; smarts_list reverses the serialised string) yields an ITS whose reactant side is [host]
      and whose changed bonds are the images of the ORIGINAL template's bonds with the opposite order change *)
Theorem backward host tpl m T :
  wf_hostb host = true -> wf_rcb tpl = true ->
  match_rcb host (invert_template tpl) m = true -> glue host (invert_template tpl) m = Some T ->
  its_decompose (invert_template tpl) = (snd (its_decompose tpl), fst (its_decompose tpl)) /\
  balancedb (invert_template tpl) = balancedb tpl /\
  (gnodes (fst (its_decompose T)) = gnodes (mol_of_host host) /\ forall a b, adj (fst (its_decompose T)) a b = adj host a b) /\
  (forall u v x, In (u, v, x) (gedges tpl) -> 0 < eG x \/ 0 < eH x ->
     exists hu hv y, mget m u = Some hu /\ mget m v = Some hv /\ adj T hu hv = Some y /\ eH y - eG y = - (eH x - eG x)) /\
  (forall a b y, adj T a b = Some y -> eG y <> eH y ->
     exists u v x hu hv, In (u, v, x) (gedges tpl) /\ mget m u = Some hu /\ mget m v = Some hv /\ peq hu hv a b = true /\
                         eH y - eG y = - (eH x - eG x)).
Proof.
  intros Hwh Hwt Hm Hg. pose proof (invert_wf tpl Hwt) as Hwi.
  split; [apply invert_decompose|]. split; [apply invert_balanced|].
  split; [exact (left_is_host_dec host _ m T Hwh Hwi Hm Hg)|].
  destruct (changes_exact host _ m T Hwi Hm Hg) as (_ & C1 & C2 & _). split.
  - intros u v x I Hpos. destruct (wf_rc_nonneg tpl u v x Hwt I) as [N1 N2].
    destruct (C1 u v _ (invert_edge_in tpl u v x I N1 N2 Hpos)) as (hu & hv & y & E1 & E2 & Ea & Ed).
    exists hu, hv, y. repeat split; auto. unfold eG, eH in *; simpl in *. lia.
  - intros a b y Ha Hne. destruct (C2 a b y Ha Hne) as (u & v & x' & hu & hv & I & E1 & E2 & Ep & Ed).
    destruct (invert_edge_inv tpl u v x' I) as (x & Ix & _ & G1 & G2 & _).
    destruct (wf_rc_nonneg tpl u v x Hwt Ix) as [N1 N2].
    exists u, v, x, hu, hv. repeat split; auto. lia.
Qed.

(** * implicit-template mode: SynRule.__init__(implicit_h=False) hands the template itself to the reactor *)
Lemma set_hc_same a : set_hc a (a_hc a) = a.
Proof. destruct a; reflexivity. Qed.

Lemma refresh_types_id (T : its) : NoDup (node_ids T) ->
  refresh_types T (fst (its_decompose T)) (snd (its_decompose T)) = Some T.
Proof.
  intros Hnd. unfold refresh_types.
  match goal with |- context [fold_right ?f _ _] => set (F := f) end.
  assert (H : forall ns, (forall k a, In (k, a) ns -> label T k = Some a) -> fold_right F (Some []) ns = Some ns).
  { induction ns as [|[k a] r IH]; intros Hall; [reflexivity|].
    change (fold_right F (Some []) ((k, a) :: r)) with (F (k, a) (fold_right F (Some []) r)).
    rewrite IH by (intros; apply Hall; right; assumption).
    pose proof (Hall k a (or_introl eq_refl)) as Hk.
    unfold F, label, its_decompose, dec_side in *. cbn [fst snd gnodes]. rewrite (assoc_map (fun a => dec_node (iG a))), (assoc_map (fun a => dec_node (iH a))), Hk. cbn [option_map dec_node m_hc].
    rewrite !set_hc_same. destruct a; reflexivity. }
  rewrite H.
  - destruct T; reflexivity.
  - intros k a I. apply assoc_nodup_in; assumption.
Qed.

Theorem synrule_implicit (tpl : its) : nodupb (node_ids tpl) = true ->
  synrule tpl false = Some (tpl, fst (its_decompose tpl), snd (its_decompose tpl)).
Proof.
  intros H. unfold synrule. simpl.
  change (dec_side iG eG tpl) with (fst (its_decompose tpl)). change (dec_side iH eH tpl) with (snd (its_decompose tpl)).
  rewrite (refresh_types_id tpl (nodupb_NoDup _ H)). reflexivity.
Qed.
