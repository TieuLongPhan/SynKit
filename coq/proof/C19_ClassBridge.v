(** C19 — index facts for "every linkage-class deficiency is >= 0" (rank of a class's difference vectors <= class size - 1):
    the class's difference vectors are indexed by the arcs inside the class; the vertices outside the class are turned into
    singleton classes so that proof/C19_RankMC.rank_complex_bound applies with (k - n_c) + 1 classes.  Style: stdlib lists. *)
From Coq Require Import List NArith ZArith Bool Arith Lia Permutation.
From SK Require Import lib.Reach model.C17_Model model.C19_Model proof.C17_Proof.
From SK Require Import proof.C19_Complexes proof.C19_Linkage proof.C19_Bridge.
Import ListNotations.
Local Open Scope nat_scope.

Definition diff_of (cs : list (list Z)) (a : nat * nat) : list Z := vsub (nth (snd a) cs []) (nth (fst a) cs []).
(** the arcs inside the class whose difference vector is not zero, in arc order *)
Definition carcs (cs : list (list Z)) (arcs : list (nat * nat)) (c : list N) : list (nat * nat) :=
  filter (fun a => mem (nn (fst a)) c && mem (nn (snd a)) c && negb (is_zero_vec (diff_of cs a))) arcs.

Lemma class_diffs_map cs arcs c : class_diffs cs arcs c = map (diff_of cs) (carcs cs arcs c).
Proof.
  unfold class_diffs, carcs. induction arcs as [|a arcs IH]; simpl; auto. fold (diff_of cs a).
  destruct (mem (nn (fst a)) c && mem (nn (snd a)) c); simpl; auto.
  destruct (is_zero_vec (diff_of cs a)); simpl; rewrite IH; reflexivity.
Qed.

Lemma carcs_in cs arcs c a : In a (carcs cs arcs c) -> In a arcs /\ In (nn (fst a)) c /\ In (nn (snd a)) c.
Proof.
  unfold carcs. rewrite filter_In. intros (I & H). apply andb_prop in H. destruct H as [H _].
  apply andb_prop in H. destruct H as [H1 H2]. apply mem_spec in H1, H2. auto.
Qed.

(** vertices outside the class *)
Definition outside (k : nat) (c : list N) : list nat := filter (fun i => negb (mem (nn i) c)) (seq 0 k).

Lemma filter_split_length {A} (p : A -> bool) l : length (filter p l) + length (filter (fun x => negb (p x)) l) = length l.
Proof. induction l as [|a l IH]; simpl; auto. destruct (p a); simpl; lia. Qed.

Lemma outside_length k c : NoDup c -> (forall y, In y c -> exists i, i < k /\ y = nn i) ->
  length (outside k c) + length c = k.
Proof.
  intros ND Hc. unfold outside.
  pose proof (filter_split_length (fun i => mem (nn i) c) (seq 0 k)) as E. rewrite seq_length in E.
  assert (P : length (filter (fun i => mem (nn i) c) (seq 0 k)) = length c).
  { rewrite <- (map_length nn). apply Permutation_length. apply NoDup_Permutation; auto.
    - apply FinFun.Injective_map_NoDup; [intros a b; apply nn_inj | apply NoDup_filter, seq_NoDup].
    - intros y. rewrite in_map_iff. split.
      + intros (i & <- & I). apply filter_In in I. destruct I as [_ I]. apply mem_spec. exact I.
      + intros I. destruct (Hc y I) as (i & Hi & ->). exists i. split; auto. apply filter_In. split; [apply in_seq; lia|].
        apply mem_spec. exact I. }
  lia.
Qed.

Lemma outside_spec k c i : In i (outside k c) <-> i < k /\ ~ In (nn i) c.
Proof.
  unfold outside. rewrite filter_In, in_seq, negb_true_iff. split.
  - intros (H & M). split; [lia|]. intros I. apply mem_spec in I. congruence.
  - intros (H & N). split; [lia|]. destruct (mem (nn i) c) eqn:M; auto. apply mem_spec in M. contradiction.
Qed.
Lemma outside_nth k c j d : j < length (outside k c) ->
  nth j (outside k c) d < k /\ ~ In (nn (nth j (outside k c) d)) c.
Proof. intros H. apply outside_spec, nth_In, H. Qed.
Lemma outside_nodup k c : NoDup (outside k c).
Proof. apply NoDup_filter, seq_NoDup. Qed.

(** class 0 = the class itself, class j+1 = the singleton of the j-th outside vertex *)
Definition cls2 (k : nat) (c : list N) (a i : nat) : bool :=
  match a with 0 => mem (nn i) c | S j => Nat.eqb i (nth j (outside k c) k) end.
Definition rep2 (k : nat) (c : list N) (a : nat) : nat :=
  match a with 0 => N.to_nat (hd 0%N c) | S j => nth j (outside k c) 0 end.

Section OneClass.
Variable k : nat.
Variable c : list N.
Hypothesis ND : NoDup c.
Hypothesis NE : c <> [].
Hypothesis MEM : forall y, In y c -> exists i, i < k /\ y = nn i.

Lemma rep2_0 : rep2 k c 0 < k /\ In (nn (rep2 k c 0)) c.
Proof.
  unfold rep2. destruct c as [|h t]; [congruence|]. simpl.
  destruct (MEM h (or_introl eq_refl)) as (i & Hi & ->). unfold nn. rewrite Nat2N.id. split; [exact Hi | left; reflexivity].
Qed.

Lemma rep2_lt a : a < S (length (outside k c)) -> rep2 k c a < k.
Proof.
  destruct a as [|j]; intros H; [apply rep2_0|]. apply outside_nth. lia.
Qed.

Lemma cls2_rep a b : a < S (length (outside k c)) -> b < S (length (outside k c)) -> cls2 k c a (rep2 k c b) = (a =? b).
Proof.
  intros Ha Hb. destruct a as [|i], b as [|j]; simpl.
  - apply mem_spec. apply rep2_0.
  - apply not_true_is_false. rewrite mem_spec. apply outside_nth. lia.
  - apply Nat.eqb_neq. intros E. apply (outside_nth k c i k); [lia|]. rewrite <- E. apply rep2_0.
  - assert (Li : i < length (outside k c)) by lia. assert (Lj : j < length (outside k c)) by lia.
    rewrite (nth_indep _ k 0 Li).
    destruct (Nat.eqb_spec i j) as [->|NE']; [apply Nat.eqb_refl|]. apply Nat.eqb_neq. intros E. apply NE'.
    symmetry. apply (proj1 (NoDup_nth (outside k c) 0) (outside_nodup k c)); auto.
Qed.

Lemma cls2_inside a u v : In (nn u) c -> In (nn v) c -> cls2 k c a u = cls2 k c a v.
Proof.
  intros Iu Iv. destruct a as [|j]; simpl.
  - apply mem_spec in Iu, Iv. congruence.
  - assert (F : forall w, In (nn w) c -> (w =? nth j (outside k c) k) = false).
    { intros w Iw. apply Nat.eqb_neq. intros E.
      destruct (Nat.lt_ge_cases j (length (outside k c))) as [Lt|Ge].
      - apply (outside_nth k c j k Lt). rewrite <- E. exact Iw.
      - rewrite nth_overflow in E by exact Ge. destruct (MEM _ Iw) as (i & Hi & Ei). apply nn_inj in Ei. lia. }
    rewrite (F u Iu), (F v Iv). reflexivity.
Qed.
End OneClass.

(** everything for the class number ci of a network *)
Section NetClass.
Variables (net : list rxn) (iso : list str) (ci : nat).
Let cs := fst (complex_graph net iso).
Let arcs := snd (complex_graph net iso).
Let k := length cs.
Let L := linkage_classes arcs k.
Let c := nth ci L [].
Hypothesis Hci : ci < length L.

Lemma class_facts : NoDup c /\ c <> [] /\ (forall y, In y c -> exists i, i < k /\ y = nn i).
Proof.
  pose proof (complex_graph_arcs_ok net iso) as OK. fold cs arcs k in OK.
  assert (Ic : In c L) by (apply nth_In; exact Hci).
  destruct (linkage_spec arcs k OK) as (_ & _ & Q3 & _). destruct (Q3 c Ic) as (N1 & N2).
  split; auto. split; auto. apply (class_members arcs k OK c Ic).
Qed.

Lemma cdiffs_map : cdiffs net iso ci = map (diff_of cs) (carcs cs arcs c).
Proof. unfold cdiffs. apply class_diffs_map. Qed.

Definition carc (t : nat) : nat * nat := nth t (carcs cs arcs c) (0, 0).

Lemma carc_spec t : t < length (cdiffs net iso ci) ->
  fst (carc t) < k /\ snd (carc t) < k /\ In (nn (fst (carc t))) c /\ In (nn (snd (carc t))) c /\
  nth t (cdiffs net iso ci) [] = diff_of cs (carc t).
Proof.
  rewrite cdiffs_map, map_length. intros Ht.
  assert (I : In (carc t) (carcs cs arcs c)) by (apply nth_In; exact Ht).
  destruct (carcs_in _ _ _ _ I) as (Ia & Iu & Iv).
  pose proof (complex_graph_arcs_ok net iso _ Ia) as (Hu & Hv). fold cs k in Hu, Hv.
  split; auto. split; auto. split; auto. split; auto.
  rewrite (nth_indep _ [] (diff_of cs (0, 0))) by (rewrite map_length; exact Ht). unfold carc. rewrite map_nth. reflexivity.
Qed.

Lemma cdiffs_entry t i : t < length (cdiffs net iso ci) -> i < length (species_order net iso) ->
  nth i (nth t (cdiffs net iso ci) []) 0%Z = (nth i (nth (snd (carc t)) cs []) 0 - nth i (nth (fst (carc t)) cs []) 0)%Z.
Proof.
  intros Ht Hi. destruct (carc_spec t Ht) as (Hu & Hv & _ & _ & E). rewrite E. unfold diff_of.
  apply vsub_nth. rewrite !(complexes_length net iso) by (apply nth_In; assumption). reflexivity.
Qed.
End NetClass.
