(** C05 — the set of glued ITS graphs of the exhaustive strategy does not depend on how substrate and rule
    are written: any insertion order of nodes / bonds / orientation of stored bonds on both sides, combined with any
    renumbering (C05_Pipe.v, C05_Comp.v).  Pieces: raw match sets coincide (C05_Sub.v, from the C06 specification), the pruning keeps
    one match of every class (C05_Pipe.v / C11), matches of one class glue to the same ITS and the glue does not look at
    insertion orders (C05_Set.v). Stdlib lists. *)
From Coq Require Import List ZArith Bool Permutation.
From SK Require Import lib.LGraph.
From SK Require Import lib.C06_Spec proof.C06_All proof.C06_Main.
From SK Require Import model.C03_Model model.C05_Model proof.C05_Proof proof.C05_Pipe proof.C05_Comp proof.C05_Order proof.C05_Sub proof.C05_Set.
Import ListNotations.

Section WithThr.
Context {TH : Thr}.


(** what is asked of one writing (substrate, prepared rule); every item is a boolean evaluated on every case of the
    correspondence ([side_okb] in the model's run function) *)
Record side_ok (host : hostg) (p : prepared) : Prop := {
  so_flag : p_flag p = false;
  so_host : gwf (host_c06 host);
  so_pat : gwf (pat_c06 (p_pat p));
  so_count : (C06_Model.lenN (C06_Model.monos_on (host_c06 host) (pat_c06 (p_pat p))
                                (node_ids (host_c06 host)) (node_ids (pat_c06 (p_pat p)))) <= thr_val)%N;
  so_rc_nodup : NoDup (node_ids (p_rc p));
  so_rc_simple : simple_edgesb (gedges (p_rc p)) = true;
  so_rc_closed : forall a b x, In (a, b, x) (gedges (p_rc p)) -> In a (node_ids (p_rc p)) /\ In b (node_ids (p_rc p));
  so_pat_rc : forall u, In u (node_ids (p_pat p)) -> In u (node_ids (p_rc p)) }.

Lemma gwf_relabel f (Hf : inj f) (g : C06_Model.graph) : gwf g -> gwf (relabel f g).
Proof.
  intros [Hnd Hed]. split.
  - rewrite (node_ids_relabel _ _ f g). apply FinFun.Injective_map_NoDup; [exact Hf | exact Hnd].
  - intros a b x I. unfold relabel in I; simpl in I. apply in_map_iff in I. destruct I as ([[a0 b0] x0] & E & I).
    inversion E; subst. destruct (Hed a0 b0 _ I) as (Ia & Ib & Hne).
    rewrite (node_ids_relabel _ _ f g). split; [apply in_map; exact Ia|]. split; [apply in_map; exact Ib|].
    intros Eq. apply Hne. apply Hf. exact Eq.
Qed.

Lemma same_graph_obs {A B} (g g' : lgraph A B) : same_graph g g' -> obs_eq g g'.
Proof. intros (H1 & H2 & _). split; assumption. Qed.

Lemma label_some_in {A B} (g : lgraph A B) u : In u (node_ids g) -> exists a, label g u = Some a.
Proof.
  unfold node_ids, label. induction (gnodes g) as [|[k a] r IH]; simpl; [intros []|].
  destruct (N.eqb_spec u k) as [->|Hne]; [intros _; eauto|]. intros [E|I]; [congruence | apply IH; exact I].
Qed.

Lemma perm_items (m m' : mapping) : Permutation m m' -> same_items m m'.
Proof. intros P ph. split; apply Permutation_in; [exact P | apply Permutation_sym; exact P]. Qed.

Lemma glued_in strat host p T : p_flag p = false -> In T (glued_of strat host p) ->
  exists k, In k (raw_of strat host p) /\ glue host (p_rc p) k = Some T.
Proof.
  intros Hflag H. unfold glued_of in H. apply in_flat_map in H. destruct H as (k & Hk & HT).
  exists k. split; [exact (C11_Dedup.subseq_in _ _ _ (prune_subseq _ _) Hk)|]. unfold glue_all, glue_base in HT. rewrite Hflag in HT. simpl in HT.
  destruct (glue host (p_rc p) k) as [T0|]; simpl in HT; [destruct HT as [<-|[]]; reflexivity | destruct HT].
Qed.

Lemma in_glued strat host p k T : p_flag p = false -> In k (kept_of strat host p) -> glue host (p_rc p) k = Some T ->
  In T (glued_of strat host p).
Proof.
  intros Hflag Hk HT. unfold glued_of. apply in_flat_map. exists k. split; [exact Hk|].
  unfold glue_all, glue_base. rewrite Hflag. simpl. rewrite HT. left. reflexivity.
Qed.

(** raw matches of the exhaustive strategy are monomorphisms in the sense of C06 *)
Lemma raw_is_mono host p k : side_ok host p -> In k (raw_of 0%N host p) -> is_mono (host_c06 host) (pat_c06 (p_pat p)) k.
Proof.
  intros S Hin. unfold raw_of in Hin. rewrite matches_monos_on in Hin.
  change (cfg_of 0%N) with (C06_Model.Cfg 0 0 thr_val true false) in Hin.
  destruct (all_exact _ thr_val true _ _ (proj1 (monos_on_oracle_ok _ _ (so_host _ _ S) (so_pat _ _ S))) (so_count _ _ S))
    as (Hsound & _ & _).
  apply Hsound. exact Hin.
Qed.

Lemma mono_facts host p k : side_ok host p -> is_mono (host_c06 host) (pat_c06 (p_pat p)) k ->
  NoDup (map fst k) /\ NoDup (map snd k) /\
  forall q h, In (q, h) k -> (exists pn, label (p_rc p) q = Some pn) /\ (exists hn, label host h = Some hn).
Proof.
  intros S (A & B & C & D & _). split; [exact A|]. split; [exact C|].
  intros q h I. split.
  - apply label_some_in. apply (so_pat_rc _ _ S). rewrite <- node_ids_pat_c06. apply B.
    change q with (fst (q, h)). apply in_map. exact I.
  - apply label_some_in. rewrite <- node_ids_host_c06. exact (proj1 (D q h I)).
Qed.

Lemma act_nodup_fst rc s k : NoDup (node_ids rc) -> simple_edgesb (gedges rc) = true ->
  (forall a b x, In (a, b, x) (gedges rc) -> In a (node_ids rc) /\ In b (node_ids rc)) ->
  In s (rule_auts rc) -> NoDup (map fst k) -> NoDup (map fst (C11_Model.act s k)).
Proof.
  intros Hnd Hsi Hcl Hs Hf. rewrite act_mv. unfold mv. rewrite map_map. simpl. rewrite <- (map_map fst (sfun s)).
  apply FinFun.Injective_map_NoDup; [exact (sfun_inj rc s Hnd Hsi Hs) | exact Hf].
Qed.
Lemma act_snd s k : map snd (C11_Model.act s k) = map snd k.
Proof. unfold C11_Model.act. rewrite map_map. reflexivity. Qed.

(** a defined glue on one side gives a defined, observationally equal glue on the other *)
Lemma obs_transfer (o o' : option its) T :
  match o, o' with Some A, Some A' => obs_eq A A' | None, None => True | _, _ => False end ->
  o = Some T -> exists T', o' = Some T' /\ obs_eq T T'.
Proof. intros H E. subst o. destruct o' as [T'|]; [eauto | destruct H]. Qed.

(** every listed match that glues is represented, up to [obs_eq], by a match the pruning KEEPS: the kept match of its
    class is the match itself, has the same pairs, or is carried to it by a rule automorphism ([glue_aut]) *)
Lemma kept_covers_raw (host : hostg) (rc : its) (raw : list mapping) (k2 : mapping) (T2 : its) :
  NoDup (node_ids rc) -> simple_edgesb (gedges rc) = true ->
  (forall a b x, In (a, b, x) (gedges rc) -> In a (node_ids rc) /\ In b (node_ids rc)) ->
  (forall m, In m raw -> NoDup (map fst m) /\ NoDup (map snd m) /\
     forall q h, In (q, h) m -> (exists pn, label rc q = Some pn) /\ (exists hn, label host h = Some hn)) ->
  In k2 raw -> glue host rc k2 = Some T2 ->
  exists k' T', In k' (prune rc raw) /\ glue host rc k' = Some T' /\ obs_eq T2 T'.
Proof.
  intros Rn Rs Rc Hok Hraw2 Hg2.
  destruct (Hok k2 Hraw2) as (K2f & K2v & K2ok).
  destruct (prune_complete rc raw k2 Hraw2) as (k' & Hk' & Hcase).
  assert (Hraw' : In k' raw) by (exact (C11_Dedup.subseq_in _ _ _ (prune_subseq _ _) Hk')).
  destruct (Hok k' Hraw') as (K'f & K'v & K'ok).
  exists k'.
  destruct Hcase as [E | [E | (s & Hs & E)]].
  - subst k'. exists T2. split; [exact Hk'|]. split; [exact Hg2 | apply obs_eq_refl].
  - pose proof (proj1 (C11_Dedup.set_eqb_spec k2 k') E) as E2.
    destruct (obs_transfer _ _ T2
               (glue_obs host host rc rc k2 k' (obs_eq_refl _) (obs_eq_refl _) Rs Rs K2f K2v K'f K'v E2 K2ok) Hg2) as (T' & Hg' & O').
    exists T'. split; [exact Hk'|]. split; [exact Hg' | exact O'].
  - pose proof (proj1 (C11_Dedup.set_eqb_spec k2 (C11_Model.act s k')) E) as E2.
    destruct (obs_transfer _ _ T2
                (glue_obs host host rc rc k2 (C11_Model.act s k') (obs_eq_refl _) (obs_eq_refl _) Rs Rs K2f K2v
                   (act_nodup_fst _ s k' Rn Rs Rc Hs K'f)
                   (eq_ind_r (fun l => NoDup l) K'v (act_snd s k')) E2 K2ok) Hg2) as (T3 & Hg3 & O3).
    pose proof (glue_aut rc s Rn Rs Rc Hs host k' K'f K'v K'ok) as Ha.
    rewrite Hg3 in Ha. destruct (glue host rc k') as [T'|]; [|destruct Ha].
    exists T'. split; [exact Hk'|]. split; [reflexivity|]. eapply obs_eq_trans; [exact O3 | apply obs_eq_sym; exact Ha].
Qed.

(** the same for a match glued on ANOTHER writing that occurs, as a set of pairs, in the listing [raw']: [glue_obs] first *)
Lemma glue_transfer (host host' : hostg) (rc rc' : its) (raw' : list mapping) (k : mapping) (T : its) :
  obs_eq host host' -> obs_eq rc rc' -> simple_edgesb (gedges rc) = true ->
  NoDup (node_ids rc') -> simple_edgesb (gedges rc') = true ->
  (forall a b x, In (a, b, x) (gedges rc') -> In a (node_ids rc') /\ In b (node_ids rc')) ->
  (forall m, In m raw' -> NoDup (map fst m) /\ NoDup (map snd m) /\
     forall q h, In (q, h) m -> (exists pn, label rc' q = Some pn) /\ (exists hn, label host' h = Some hn)) ->
  (NoDup (map fst k) /\ NoDup (map snd k) /\
     forall q h, In (q, h) k -> (exists pn, label rc q = Some pn) /\ (exists hn, label host h = Some hn)) ->
  glue host rc k = Some T -> (exists k2, In k2 raw' /\ same_items k k2) ->
  exists k' T', In k' (prune rc' raw') /\ glue host' rc' k' = Some T' /\ obs_eq T T'.
Proof.
  intros Hh Hr Rs Rn' Rs' Rc' Hok' (Kf & Kv & Kok) Hg (k2 & Hraw2 & Ek).
  destruct (Hok' k2 Hraw2) as (K2f & K2v & K2ok).
  destruct (obs_transfer _ _ T (glue_obs host host' rc rc' k k2 Hh Hr Rs Rs' Kf Kv K2f K2v Ek Kok) Hg) as (T2 & Hg2 & O2).
  destruct (kept_covers_raw host' rc' raw' k2 T2 Rn' Rs' Rc' Hok' Hraw2 Hg2) as (k' & T' & Hk' & Hg' & O').
  exists k', T'. split; [exact Hk'|]. split; [exact Hg' | eapply obs_eq_trans; eassumption].
Qed.

Theorem glued_set_invariant (host host' : hostg) (p p' : prepared) :
  side_ok host p -> side_ok host' p' ->
  same_graph host host' -> same_graph (p_rc p) (p_rc p') -> same_graph (p_pat p) (p_pat p') ->
  forall T, In T (glued_of 0%N host p) -> exists T', In T' (glued_of 0%N host' p') /\ obs_eq T T'.
Proof.
  intros S S' Hh Hr Hp T HT.
  destruct (glued_in 0%N host p T (so_flag _ _ S) HT) as (k & Hraw & Hg).
  destruct (glue_transfer host host' (p_rc p) (p_rc p') (raw_of 0%N host' p') k T (same_graph_obs _ _ Hh) (same_graph_obs _ _ Hr)
              (so_rc_simple _ _ S) (so_rc_nodup _ _ S') (so_rc_simple _ _ S') (so_rc_closed _ _ S')
              (fun m I => mono_facts host' p' m S' (raw_is_mono host' p' m S' I))
              (mono_facts host p k S (raw_is_mono host p k S Hraw)) Hg) as (k' & T' & Hk' & Hg' & O').
  - (* the same match among the raw matches of the other writing *)
    destruct (matches_all_any_order host host' (p_pat p) (p_pat p') Hh Hp (so_host _ _ S) (so_pat _ _ S)
                (so_host _ _ S') (so_pat _ _ S') (so_count _ _ S) (so_count _ _ S') k Hraw) as (k2 & Hraw2 & Pk).
    exists k2. split; [exact Hraw2 | exact (perm_items _ _ Pk)].
  - exists T'. split; [exact (in_glued 0%N host' p' k' T' (so_flag _ _ S') Hk' Hg') | exact O'].
Qed.

(** [side_okb] (evaluated by the correspondence on every writing) implies [side_ok] *)
Lemma side_okb_ok host p : side_okb host p = true -> side_ok host p.
Proof.
  unfold side_okb. intros H.
  repeat (apply andb_prop in H; let H' := fresh "B" in destruct H as [H H']).
  constructor.
  - apply negb_true_iff. exact H.
  - apply gwfb_spec. exact B5.
  - apply gwfb_spec. exact B4.
  - rewrite <- monos_on'_eq. apply N.leb_le. exact B3.
  - apply C03_Proof.nodupb_NoDup. exact B2.
  - exact B1.
  - intros a b x I. unfold closedb in B0. rewrite forallb_forall in B0. specialize (B0 _ I). simpl in B0.
    apply andb_prop in B0. destruct B0 as [Ba Bb]. split; apply LGraph.mem_spec; assumption.
  - intros u I. rewrite forallb_forall in B. apply LGraph.mem_spec. apply B. exact I.
Qed.

(** from invariance under re-ordering to invariance under rewriting: when a result list [G] commutes literally with
    renumbering and its set (up to [obs_eq]) does not depend on the order in which the inputs are written, the results of
    any writing of the renumbered inputs are the renumbered results, in both directions.  [S]: what is asked of one writing. *)
Lemma set_rewriting (S : hostg -> prepared -> Prop) (G : hostg -> prepared -> list its) (sg pi : N -> N)
      (host host'' : hostg) (p p'' : prepared) :
  (forall h h' q q', S h q -> S h' q' -> same_graph h h' -> same_graph (p_rc q) (p_rc q') -> same_graph (p_pat q) (p_pat q') ->
     forall T, In T (G h q) -> exists T', In T' (G h' q') /\ obs_eq T T') ->
  G (relabel pi host) (relabel_prep sg p) = map (relabel pi) (G host p) ->
  S (relabel pi host) (relabel_prep sg p) -> S host'' p'' ->
  same_graph (relabel pi host) host'' -> same_graph (relabel sg (p_rc p)) (p_rc p'') ->
  same_graph (relabel sg (p_pat p)) (p_pat p'') ->
  (forall T, In T (G host p) -> exists T'', In T'' (G host'' p'') /\ obs_eq (relabel pi T) T'') /\
  (forall T'', In T'' (G host'' p'') -> exists T, In T (G host p) /\ obs_eq (relabel pi T) T'').
Proof.
  intros Inv Hlit S1 S'' Hh Hr Hpt. split.
  - intros T HT. apply (Inv _ _ _ _ S1 S'' Hh Hr Hpt). rewrite Hlit. apply in_map. exact HT.
  - intros T'' HT''.
    destruct (Inv _ _ _ _ S'' S1 (same_graph_sym _ _ Hh) (same_graph_sym _ _ Hr) (same_graph_sym _ _ Hpt) T'' HT'') as (T1 & HT1 & O).
    rewrite Hlit in HT1. apply in_map_iff in HT1. destruct HT1 as (T & <- & HT).
    exists T. split; [exact HT | apply obs_eq_sym; exact O].
Qed.

(** the whole statement: renumbering by (sg, pi) followed by any re-ordering of both inputs.  The glued graphs of the
    rewritten inputs are, as a set of observationally equal graphs, the renumbered glued graphs of the original. *)
Theorem glued_set_rewriting (sg pi : N -> N) (Hs : inj sg) (Hp : inj pi)
        (host host'' : hostg) (p p'' : prepared) :
  side_ok (relabel pi host) (relabel_prep sg p) -> side_ok host'' p'' ->
  same_graph (relabel pi host) host'' -> same_graph (relabel sg (p_rc p)) (p_rc p'') ->
  same_graph (relabel sg (p_pat p)) (p_pat p'') ->
  (forall T, In T (glued_of 0%N host p) -> exists T'', In T'' (glued_of 0%N host'' p'') /\ obs_eq (relabel pi T) T'') /\
  (forall T'', In T'' (glued_of 0%N host'' p'') -> exists T, In T (glued_of 0%N host p) /\ obs_eq (relabel pi T) T'').
Proof.
  intros S. apply (set_rewriting side_ok (glued_of 0%N)); [exact glued_set_invariant | | exact S].
  exact (glued_relabel 0%N sg pi Hs Hp host p (so_flag _ _ S)).
Qed.

Lemma vocabulary :
  (forall f, inj f <-> forall a b : N, f a = f b -> a = b) /\
  (forall sg pi (m : mapping), mv sg pi m = map (fun ph => (sg (fst ph), pi (snd ph))) m) /\
  (forall (g g' : hostg), same_graph g g' <->
     (forall u, label g' u = label g u) /\ (forall u v, LGraph.adj g' u v = LGraph.adj g u v) /\
     (forall u, In u (node_ids g) <-> In u (node_ids g')) /\ NoDup (node_ids g) /\ NoDup (node_ids g')) /\
  (forall (T T' : its), obs_eq T T' <->
     (forall n, label T' n = label T n) /\ (forall a b, LGraph.adj T' a b = LGraph.adj T a b)) /\
  (forall host p, side_okb host p = true ->
     p_flag p = false /\ gwf (host_c06 host) /\ gwf (pat_c06 (p_pat p)) /\
     (C06_Model.lenN (C06_Model.monos_on (host_c06 host) (pat_c06 (p_pat p))
                        (node_ids (host_c06 host)) (node_ids (pat_c06 (p_pat p)))) <= thr_val)%N /\
     NoDup (node_ids (p_rc p)) /\ simple_edgesb (gedges (p_rc p)) = true /\
     (forall a b x, In (a, b, x) (gedges (p_rc p)) -> In a (node_ids (p_rc p)) /\ In b (node_ids (p_rc p))) /\
     (forall u, In u (node_ids (p_pat p)) -> In u (node_ids (p_rc p)))).
Proof.
  split; [intros f; reflexivity|]. split; [reflexivity|]. split; [intros g g'; reflexivity|].
  split; [intros T T'; reflexivity|].
  intros host p H. destruct (side_okb_ok host p H) as [A B C D E F G I].
  split; [exact A|]. split; [exact B|]. split; [exact C|]. split; [exact D|]. split; [exact E|]. split; [exact F|]. split; [exact G | exact I].
Qed.

End WithThr.
