(** C05 — the DEFAULT configuration (explicit_h=True, implicit_temp=False) for templates without hydrogen atoms:
    rule preparation is a pointwise function of the template ([default_rc] of proof/C03_Default.v: hydrogen counts reset, empty h_pairs), the
    pattern has no explicit X-H bond, and the _explicit_h stage leaves every glued graph as it is (no hydrogen pairs, no
    migration).  Hence the whole [pipeline ... explicit_stage := true] is covered by the invariance theorems. *)
From Coq Require Import List ZArith Bool.
From SK Require Import lib.LGraph.
From SK Require Import model.C03_Model proof.C03_Proof proof.C03_Glue proof.C03_Backward proof.C03_Default.
From SK Require Import model.C05_Model proof.C05_Proof proof.C05_Pipe proof.C05_Prep proof.C05_Order proof.C05_PrepOrder.
Import ListNotations.
Local Open Scope Z_scope.

Section WithThr.
Context {TH : Thr}.


(** no hydrogen atom on either side *)
Definition noHb (T : its) : bool :=
  forallb (fun p => negb (N.eqb (a_el (iG (snd p))) EL_H) && negb (N.eqb (a_el (iH (snd p))) EL_H)) (gnodes T).

Definition left_default (T : its) : molg := init_m (dec_side iG eG (standardize_hydrogen T)).
Definition right_default (T : its) : molg := init_m (dec_side iH eH (standardize_hydrogen T)).

(** [C03_Default.synrule_default_noH] with its witnesses made explicit: the two sides do not depend on the refreshed
    rule graph, which that theorem provides *)
Lemma synrule_default_explicit (tpl : its) :
  nodupb (node_ids tpl) = true -> noHb tpl = true ->
  synrule tpl true = Some (default_rc tpl, left_default tpl, right_default tpl).
Proof.
  intros Hnd Hno. destruct (synrule_default_noH tpl Hnd Hno) as (l & r & E). revert E.
  unfold noHb in Hno. apply nodupb_NoDup in Hnd. rewrite forallb_forall in Hno.
  assert (HG : forall k a, In (k, a) (gnodes tpl) -> N.eqb (a_el (iG a)) EL_H = false /\ N.eqb (a_el (iH a)) EL_H = false).
  { intros k a I. specialize (Hno _ I). simpl in Hno. apply andb_prop in Hno. destruct Hno as [H1 H2].
    apply negb_true_iff in H1, H2. auto. }
  unfold left_default, right_default, synrule. cbn [negb]. set (rc0 := standardize_hydrogen tpl).
  assert (Hrc0 : forall k a, In (k, a) (gnodes rc0) -> exists a0, In (k, a0) (gnodes tpl) /\ a = std_h_node a0).
  { intros k a I. apply in_map_nodes in I. exact I. }
  unfold its_decompose. set (l0 := dec_side iG eG rc0). set (r0 := dec_side iH eH rc0).
  unfold strip_explicit_h. cbn [fst snd].
  assert (HL : h_nodes_m (init_m l0) = []).
  { apply h_nodes_m_nil. intros k a I. apply in_map_nodes in I. destruct I as (a1 & I & ->). simpl.
    unfold l0, dec_side in I; simpl in I. apply in_map_iff in I. destruct I as ([k2 a2] & E & I). inversion E; subst.
    destruct (Hrc0 _ _ I) as (a0 & I0 & ->). simpl. exact (proj1 (HG _ _ I0)). }
  assert (HR : h_nodes_m (init_m r0) = []).
  { apply h_nodes_m_nil. intros k a I. apply in_map_nodes in I. destruct I as (a1 & I & ->). simpl.
    unfold r0, dec_side in I; simpl in I. apply in_map_iff in I. destruct I as ([k2 a2] & E & I). inversion E; subst.
    destruct (Hrc0 _ _ I) as (a0 & I0 & ->). simpl. exact (proj2 (HG _ _ I0)). }
  assert (HI : h_nodes_i (init_i rc0) = []).
  { apply h_nodes_i_nil. intros k a I. apply in_map_nodes in I. destruct I as (a1 & I & ->). simpl.
    destruct (Hrc0 _ _ I) as (a0 & I0 & ->). simpl. exact (proj1 (HG _ _ I0)). }
  unfold shared_h. rewrite HL. cbn [fold_right sort_N]. unfold strip_shared. cbn [fold_left fst].
  unfold step3_rc. cbn [fst snd]. rewrite HI. cbn [fold_left].
  unfold step3_l. cbn [fst snd]. rewrite HL. cbn [fold_left].
  unfold step3_r. cbn [fst snd]. rewrite HR. cbn [fold_left].
  destruct (refresh_types (init_i rc0) (init_m l0) (init_m r0)); [intros [= -> _ _]; reflexivity | discriminate].
Qed.

Lemma label_map_nodes {A B} (g : lgraph A B) (f : A -> A) u : label (map_nodes g (fun _ => f)) u = option_map f (label g u).
Proof.
  unfold label, map_nodes; simpl. induction (gnodes g) as [|[k a] r IH]; simpl; [reflexivity|].
  destruct (N.eqb u k); [reflexivity | exact IH].
Qed.

Lemma left_default_label (T : its) u :
  label (left_default T) u = option_map (fun a : inode => MN (a_el (iG a)) (a_aro (iG a)) 0 (a_ch (iG a)) (if N.eqb (a_el (iG a)) EL_H then None else Some [])) (label T u).
Proof.
  unfold left_default, init_m. rewrite (label_map_nodes _ (fun a : mnode => MN (m_el a) (m_aro a) 0 (m_ch a) (if N.eqb (m_el a) EL_H then m_hp a else hp_default (m_hp a)))).
  unfold label at 1. rewrite dec_gnodes, (assoc_map (fun a => dec_node (iG a))).
  change (assoc u (gnodes (standardize_hydrogen T))) with (label (standardize_hydrogen T) u).
  unfold standardize_hydrogen. rewrite (label_map_nodes T std_h_node).
  destruct (label T u) as [a|]; [|reflexivity]. simpl. destruct (N.eqb (a_el (iG a)) EL_H); reflexivity.
Qed.

Lemma noH_isH (T : its) : NoDup (node_ids T) -> noHb T = true -> forall u, is_H_m (left_default T) u = false.
Proof.
  intros Hnd Hno u. unfold is_H_m. rewrite left_default_label. destruct (label T u) as [a|] eqn:E; [|reflexivity]. simpl.
  unfold noHb in Hno. rewrite forallb_forall in Hno. unfold label in E. apply assoc_in in E. specialize (Hno _ E). simpl in Hno.
  apply andb_prop in Hno. destruct Hno as [H1 _]. apply negb_true_iff in H1. exact H1.
Qed.

Lemma noH_has_XH (T : its) : NoDup (node_ids T) -> noHb T = true -> has_XH (left_default T) = false.
Proof.
  intros Hnd Hno. unfold has_XH. apply not_true_iff_false. intros H. apply existsb_exists in H.
  destruct H as ([[u v] x] & _ & Hx). rewrite !(noH_isH T Hnd Hno) in Hx. discriminate.
Qed.

Lemma invert_noH (T : its) : noHb (invert_template T) = noHb T.
Proof.
  unfold noHb. rewrite invert_gnodes. induction (gnodes T) as [|[k a] r IH]; simpl; [reflexivity|].
  rewrite IH. f_equal. apply andb_comm.
Qed.

(** ** the prepared rule of the default mode, explicitly *)
Definition prep_default (inv : bool) (T : its) : prepared :=
  let U := if inv then invert_template T else T in
  Prep (default_rc U) (left_default U) (right_default U) false (left_default U).

Lemma prepare_default inv (T : its) : nodupb (node_ids T) = true -> noHb T = true ->
  prepare inv false T = Some (prep_default inv T).
Proof.
  intros Hnd Hno. unfold prepare, prep_default. change (negb false) with true.
  set (U := if inv then invert_template T else T).
  assert (HU : nodupb (node_ids U) = true) by (unfold U; destruct inv; [rewrite invert_ids|]; exact Hnd).
  assert (HN : noHb U = true) by (unfold U; destruct inv; [rewrite invert_noH|]; exact Hno).
  rewrite (synrule_default_explicit U HU HN).
  rewrite (noH_has_XH U (nodupb_NoDup _ HU) HN). reflexivity.
Qed.

Lemma map_nodes_relabel {A B} (sg : N -> N) (g : lgraph A B) (f : A -> A) :
  map_nodes (relabel sg g) (fun _ => f) = relabel sg (map_nodes g (fun _ => f)).
Proof. unfold map_nodes, relabel; simpl. rewrite !map_map. reflexivity. Qed.

Lemma default_rc_map (T : its) : default_rc T = map_nodes T (fun _ => strip0).
Proof. reflexivity. Qed.

Lemma prep_default_relabel_core sg (U : its) :
  Prep (default_rc (relabel sg U)) (left_default (relabel sg U)) (right_default (relabel sg U)) false (left_default (relabel sg U))
  = relabel_prep sg (Prep (default_rc U) (left_default U) (right_default U) false (left_default U)).
Proof.
  unfold relabel_prep. cbn [p_rc p_l p_r p_flag p_pat].
  assert (EL : forall sn se, init_m (dec_side sn se (standardize_hydrogen (relabel sg U))) = relabel sg (init_m (dec_side sn se (standardize_hydrogen U)))).
  { intros sn se. unfold standardize_hydrogen, init_m. rewrite (map_nodes_relabel sg U std_h_node), dec_side_relabel.
    apply (map_nodes_relabel sg (dec_side sn se (map_nodes U (fun _ => std_h_node)))
             (fun a : mnode => MN (m_el a) (m_aro a) 0 (m_ch a) (if N.eqb (m_el a) EL_H then m_hp a else hp_default (m_hp a)))). }
  assert (ER : default_rc (relabel sg U) = relabel sg (default_rc U))
    by (unfold default_rc, relabel; simpl; rewrite !map_map; reflexivity).
  unfold left_default, right_default. rewrite !EL, ER. reflexivity.
Qed.

Lemma prep_default_relabel sg (Hs : inj sg) inv (T : its) : prep_default inv (relabel sg T) = relabel_prep sg (prep_default inv T).
Proof.
  unfold prep_default. destruct inv; cbv zeta.
  - rewrite invert_template_relabel. apply prep_default_relabel_core.
  - apply prep_default_relabel_core.
Qed.

Lemma map_nodes_same {A B} (g g' : lgraph A B) (f : A -> A) :
  same_graph g g' -> same_graph (map_nodes g (fun _ => f)) (map_nodes g' (fun _ => f)).
Proof.
  intros HS.
  assert (Eids : forall h : lgraph A B, node_ids (map_nodes h (fun _ => f)) = node_ids h)
    by (intros h; unfold node_ids, map_nodes; simpl; rewrite map_map; reflexivity).
  pose proof HS as (L & Ad & _). apply (same_graph_image g g' _ _ HS (Eids g) (Eids g')); [|exact Ad].
  intros u. rewrite !label_map_nodes, L. reflexivity.
Qed.

Lemma prep_default_same inv (T T' : its) : same_graph T T' ->
  simple_edgesb (gedges T) = true -> simple_edgesb (gedges T') = true ->
  same_graph (p_rc (prep_default inv T)) (p_rc (prep_default inv T')) /\
  same_graph (p_pat (prep_default inv T)) (p_pat (prep_default inv T')).
Proof.
  intros HS Hw Hw'. unfold prep_default. cbn [p_rc p_pat].
  destruct (oriented_same inv T T' HS Hw Hw') as (HSU & HwU & HwU').
  set (U := if inv then invert_template T else T) in *. set (U' := if inv then invert_template T' else T') in *.
  split.
  - rewrite !default_rc_map. apply map_nodes_same. exact HSU.
  - unfold left_default, init_m. apply map_nodes_same.
    apply dec_side_same; [unfold standardize_hydrogen; apply map_nodes_same; exact HSU | exact HwU | exact HwU'].
Qed.

(** ** the _explicit_h stage does nothing when no atom carries a hydrogen pair *)
Definition nohp (T : its) : Prop := forall k a, In (k, a) (gnodes T) -> i_hp a = None \/ i_hp a = Some [].

Lemma nohp_forallb (T : its) :
  forallb (fun p : N * inode => match i_hp (snd p) with None | Some [] => true | _ => false end) (gnodes T) = true -> nohp T.
Proof.
  intros H k a I. rewrite forallb_forall in H. specialize (H _ I). simpl in H.
  destruct (i_hp a) as [[|x l]|]; [right; reflexivity | discriminate | left; reflexivity].
Qed.

Lemma pair_to_nodes_nohp (T : its) : nohp T -> pair_to_nodes T = [].
Proof.
  unfold nohp, pair_to_nodes. intros H.
  assert (G : forall ns pt, (forall k a, In (k, a) ns -> i_hp a = None \/ i_hp a = Some []) ->
          fold_left (fun pt (p : N * inode) =>
                       fold_left (fun pt' pid => pt_add pt' pid (fst p)) (match i_hp (snd p) with Some l => l | None => [] end) pt) ns pt = pt).
  { induction ns as [|[k a] r IH]; intros pt Hall; simpl; [reflexivity|].
    destruct (Hall k a (or_introl eq_refl)) as [E|E]; rewrite E; simpl; apply IH; intros; eapply Hall; right; eassumption. }
  apply G. exact H.
Qed.

Lemma explicit_h_nohp (T : its) : nohp T -> explicit_h T = Some (T, []).
Proof.
  intros H. unfold explicit_h, all_migrations. rewrite (pair_to_nodes_nohp T H). reflexivity.
Qed.

Lemma nohp_upd (T : its) h (f : inode -> inode) :
  nohp T -> (forall a, i_hp a = None \/ i_hp a = Some [] -> i_hp (f a) = None \/ i_hp (f a) = Some []) -> nohp (upd_node T h f).
Proof.
  intros H Hf k a I. unfold upd_node in I; simpl in I. apply in_map_iff in I. destruct I as ([k0 a0] & E & I).
  simpl in E. destruct (N.eqb k0 h); inversion E; subst; [apply Hf|]; eapply H; eassumption.
Qed.

Lemma glue_nodes_nohp (rc : its) (m : mapping) : nohp rc -> forall T, nohp T -> nohp (glue_nodes T rc m).
Proof.
  intros Hrc. unfold glue_nodes. induction m as [|[p h] r IH]; intros T HT; simpl; [exact HT|].
  destruct (label rc p) as [pn|] eqn:E; [|apply IH; exact HT].
  destruct (has_node T h); [|apply IH; exact HT].
  apply IH. apply nohp_upd; [exact HT|]. intros a Ha. unfold node_glue; simpl.
  unfold label in E. apply assoc_in in E. destruct (Hrc p pn E) as [E1|E1]; rewrite E1; [exact Ha | right; reflexivity].
Qed.

Lemma its_of_host_nohp (host : hostg) : nohp (its_of_host host).
Proof.
  intros k a I. unfold its_of_host in I; simpl in I. apply in_map_iff in I. destruct I as ([k0 a0] & E & _). inversion E; subst. left; reflexivity.
Qed.

Lemma glue_nohp host rc m T : nohp rc -> glue host rc m = Some T -> nohp T.
Proof.
  intros Hrc Hg. unfold glue in Hg. intros k a I. rewrite (fold_glue_nodes _ _ _ _ Hg) in I.
  exact (glue_nodes_nohp rc m Hrc (its_of_host host) (its_of_host_nohp host) k a I).
Qed.

Lemma default_rc_nohp (U : its) : (forall k a, In (k, a) (gnodes U) -> i_hp a = None \/ i_hp a = Some []) -> nohp (default_rc U).
Proof.
  intros H k a I. unfold default_rc in I; simpl in I. apply in_map_iff in I. destruct I as ([k0 a0] & E & I). inversion E; subst.
  unfold strip0; simpl. right. destruct (H k a0 I) as [E1|E1]; rewrite E1; reflexivity.
Qed.

Lemma invert_nohp (T : its) : nohp (invert_template T).
Proof.
  intros k a I. rewrite invert_gnodes in I. apply in_map_iff in I. destruct I as ([k0 a0] & E & _). inversion E; subst. left; reflexivity.
Qed.

(** in the default configuration with a hydrogen-free template the result list is the list of glued graphs *)
Lemma results_default strat host inv (T : its) : nohp T ->
  results_of true strat host (prep_default inv T) = Some (glued_of strat host (prep_default inv T)).
Proof.
  intros HT. unfold results_of.
  assert (Hrc : nohp (p_rc (prep_default inv T))).
  { unfold prep_default; cbn [p_rc]. apply default_rc_nohp. destruct inv; [apply invert_nohp | exact HT]. }
  assert (Hall : forall G, In G (glued_of strat host (prep_default inv T)) -> nohp G).
  { intros G HG. unfold glued_of in HG. apply in_flat_map in HG. destruct HG as (k & _ & HG).
    unfold glue_all, glue_base in HG.
    assert (Hf : p_flag (prep_default inv T) = false) by reflexivity. rewrite Hf in HG. cbn [flat_map app] in HG.
    destruct (glue host (p_rc (prep_default inv T)) k) as [G0|] eqn:E; [|destruct HG].
    cbn [app] in HG. destruct HG as [<-|[]]. exact (glue_nohp _ _ _ _ Hrc E). }
  induction (glued_of strat host (prep_default inv T)) as [|G r IH]; simpl; [reflexivity|].
  rewrite (explicit_h_nohp G (Hall G (or_introl eq_refl))), IH; [reflexivity|]. intros G' I. apply Hall. right. exact I.
Qed.

End WithThr.
