(** C05 — the embedding cap ([SynReactor(embed_threshold = k)] -> [find_subgraph_mappings(threshold = k)]).
    The cap is a parameter of the whole model ([thr_val]); every theorem of proof/C05_*.v holds for every cap.  This file
    is about what the cap itself does: how the option is read ([eff_thr]), that no strategy ever returns more than
    [thr_val] embeddings, and that a capped search answers with EVERYTHING or with NOTHING — never with "the first k
    embeddings in enumeration order", which would make the answer depend on how the inputs are written.  Which of the
    two it is, is decided by counts that do not depend on the writing. *)
From Coq Require Import NArith ZArith Lia Permutation SetoidList SetoidPermutation.
From SK Require Import lib.LGraph.
From SK Require Import lib.C06_Spec proof.C06_Comp proof.C06_Main.
From SK Require Import model.C03_Model model.C05_Model proof.C05_Proof proof.C05_Pipe proof.C05_Order proof.C05_Sub.
Import ListNotations.

(** ** reading the option *)
Lemma eff_thr_spec :
  eff_thr None = 5000%N /\ (forall k, eff_thr (Some k) = k) /\ eff_thr (Some 0%N) = 0%N /\
  (forall o, @thr_val (thr_of o) = eff_thr o).
Proof. repeat split. Qed.

Section WithThr.
Context {TH : Thr}.

(** ** the final guard: no strategy returns more than the cap *)
Lemma matches_le_cap strat host pat : (C06_Model.lenN (matches strat host pat) <= thr_val)%N.
Proof.
  unfold matches, C06_Model.find. cbn [C06_Model.c_pref cfg_of andb C06_Model.c_thr].
  match goal with |- context [if (thr_val <? C06_Model.lenN ?r)%N then _ else _] => destruct (N.ltb_spec thr_val (C06_Model.lenN r)) end.
  - unfold C06_Model.lenN. simpl. lia.
  - assumption.
Qed.

Lemma cap_zero strat host pat : thr_val = 0%N -> matches strat host pat = [].
Proof.
  intros E. pose proof (matches_le_cap strat host pat) as H. rewrite E in H.
  destruct (matches strat host pat); [reflexivity|]. unfold C06_Model.lenN in H. simpl in H. lia.
Qed.

(** ** all or nothing *)
Definition enum_all (host : hostg) (pat : molg) : list mapping :=
  C06_Model.monos_on (host_c06 host) (pat_c06 pat) (node_ids (host_c06 host)) (node_ids (pat_c06 pat)).

Lemma limit0 {X} thr (U : list X) : limit 0 thr U = if (thr <? C06_Model.lenN U)%N then [] else U.
Proof.
  unfold limit. simpl. destruct (thr <? C06_Model.lenN U)%N; [reflexivity|].
  unfold C06_Model.lenN. rewrite Nat2N.id. apply firstn_all.
Qed.

Lemma all_or_nothing_all host pat :
  matches 0%N host pat = if (thr_val <? C06_Model.lenN (enum_all host pat))%N then [] else enum_all host pat.
Proof. rewrite matches_all_unfold. cbv zeta. rewrite monos_on'_eq. reflexivity. Qed.

Lemma all_or_nothing_comp host pat :
  matches 1%N host pat = [] \/
  matches 1%N host pat = comp_unl (C06_Model.monos_on (host_c06 host) (pat_c06 pat)) true (host_c06 host) (pat_c06 pat).
Proof.
  rewrite matches_monos_on. change (cfg_of 1%N) with (C06_Model.Cfg 1 0 thr_val true false).
  destruct (find_comp_limits (C06_Model.monos_on (host_c06 host) (pat_c06 pat)) 0 thr_val true (host_c06 host) (pat_c06 pat)) as [E|[E _]].
  - rewrite E, limit0. destruct (thr_val <? _)%N; [left|right]; reflexivity.
  - left. exact E.
Qed.

Lemma all_or_nothing_bt host pat :
  matches 2%N host pat = [] \/
  matches 2%N host pat = comp_unl (C06_Model.monos_on (host_c06 host) (pat_c06 pat)) true (host_c06 host) (pat_c06 pat) \/
  matches 2%N host pat = enum_all host pat.
Proof.
  rewrite matches_monos_on. change (cfg_of 2%N) with (C06_Model.Cfg 2 0 thr_val true false).
  pose proof (find_bt_limits (C06_Model.monos_on (host_c06 host) (pat_c06 pat)) 0 thr_val true (host_c06 host) (pat_c06 pat)) as Hb.
  cbv zeta in Hb. destruct Hb as [E|[_ E]]; rewrite E, limit0.
  - destruct (thr_val <? _)%N; [left; reflexivity|]. unfold bt_unl_result.
    destruct (comp_unl _ true (host_c06 host) (pat_c06 pat)) eqn:Ec; [right; right; reflexivity|right; left; reflexivity].
  - destruct (thr_val <? _)%N; [left; reflexivity|right; right; reflexivity].
Qed.

(** ** whether the exhaustive search is capped does not depend on the writing of the substrate nor on the numbering *)
Lemma enum_all_count_host_order (host host' : hostg) (pat : molg) :
  same_graph host host' -> C06_Model.lenN (enum_all host pat) = C06_Model.lenN (enum_all host' pat).
Proof. exact (monos_on_count_host_order host host' pat). Qed.

Lemma enum_all_count_relabel sg pi (Hs : inj sg) (Hp : inj pi) (host : hostg) (pat : molg) :
  C06_Model.lenN (enum_all (relabel pi host) (relabel sg pat)) = C06_Model.lenN (enum_all host pat).
Proof.
  unfold enum_all. rewrite <- !monos_on'_eq.
  rewrite host_c06_relabel, pat_c06_relabel, !node_ids_relabel.
  rewrite (monos_on'_relabel sg pi Hs Hp). apply lenN_map.
Qed.

(** the capped exhaustive search: nothing for the base writing iff nothing for any re-ordered writing of the renumbered
    substrate with the renumbered pattern *)
Lemma capped_invariant sg pi (Hs : inj sg) (Hp : inj pi) (host host' : hostg) (pat : molg) :
  same_graph (relabel pi host) host' ->
  C06_Model.lenN (enum_all host' (relabel sg pat)) = C06_Model.lenN (enum_all host pat).
Proof.
  intros HS. rewrite <- (enum_all_count_host_order _ _ _ HS). apply enum_all_count_relabel; assumption.
Qed.

(** the same for ANY rewriting — substrate and pattern both re-ordered (node lists, bond lists, bond orientation): the
    two enumerations list the same monomorphisms, each exactly once up to the order of the pairs *)
Lemma PermutationA_length' {X} (eqA : X -> X -> Prop) l l' : PermutationA eqA l l' -> length l = length l'.
Proof. induction 1; simpl; congruence. Qed.

Lemma enum_all_count_any_order (host host' : hostg) (pat pat' : molg) :
  same_graph host host' -> same_graph pat pat' ->
  gwf (host_c06 host) -> gwf (pat_c06 pat) -> gwf (host_c06 host') -> gwf (pat_c06 pat') ->
  C06_Model.lenN (enum_all host' pat') = C06_Model.lenN (enum_all host pat).
Proof.
  intros HS PS Hw Pw Hw' Pw'. unfold enum_all, C06_Model.lenN. f_equal.
  destruct (proj1 (monos_on_oracle_ok _ _ Hw Pw)) as (S1 & C1 & N1).
  destruct (proj1 (monos_on_oracle_ok _ _ Hw' Pw')) as (S2 & C2 & N2).
  apply (PermutationA_length' (@Permutation (N * N))).
  apply NoDupA_equivlistA_PermutationA; [apply Permutation_Equivalence|exact N2|exact N1|].
  intros m. rewrite !InA_alt. split.
  - intros (m' & Pm & Im). apply S2 in Im.
    destruct (C1 m' (is_mono_same host' host pat' pat m' (same_graph_sym _ _ HS) (same_graph_sym _ _ PS) Im)) as (m'' & I'' & P'').
    exists m''. split; [etransitivity; eassumption|exact I''].
  - intros (m' & Pm & Im). apply S1 in Im.
    destruct (C2 m' (is_mono_same host host' pat pat' m' HS PS Im)) as (m'' & I'' & P'').
    exists m''. split; [etransitivity; eassumption|exact I''].
Qed.

Lemma capped_invariant_any sg pi (Hs : inj sg) (Hp : inj pi) (host host'' : hostg) (pat pat'' : molg) :
  same_graph (relabel pi host) host'' -> same_graph (relabel sg pat) pat'' ->
  gwf (host_c06 (relabel pi host)) -> gwf (pat_c06 (relabel sg pat)) -> gwf (host_c06 host'') -> gwf (pat_c06 pat'') ->
  C06_Model.lenN (enum_all host'' pat'') = C06_Model.lenN (enum_all host pat).
Proof.
  intros HS PS G1 G2 G3 G4. rewrite (enum_all_count_any_order _ _ _ _ HS PS G1 G2 G3 G4).
  apply enum_all_count_relabel; assumption.
Qed.

(** ** comp <= all whenever the EXHAUSTIVE search is not capped — no premise about the component-aware search: under a cap it
    returns its limit-free result or nothing *)
Lemma comp_subset_all_any_cap (host : hostg) (pat : molg) :
  gwf (host_c06 host) -> gwf (pat_c06 pat) ->
  (C06_Model.lenN (enum_all host pat) <= thr_val)%N ->
  forall m, In m (matches 1%N host pat) -> exists m', In m' (matches 0%N host pat) /\ Permutation m m'.
Proof.
  intros HwH HwP Hl m Hin.
  destruct (all_or_nothing_comp host pat) as [E|E]; rewrite E in Hin; [destruct Hin|].
  exact (comp_unl_subset_all host pat HwH HwP Hl m Hin).
Qed.

Lemma bt_subset_all_any_cap (host : hostg) (pat : molg) :
  gwf (host_c06 host) -> gwf (pat_c06 pat) ->
  (C06_Model.lenN (enum_all host pat) <= thr_val)%N ->
  forall m, In m (matches 2%N host pat) -> exists m', In m' (matches 0%N host pat) /\ Permutation m m'.
Proof.
  intros HwH HwP Hl m Hin.
  destruct (all_or_nothing_bt host pat) as [E|[E|E]]; rewrite E in Hin; [destruct Hin| |].
  - exact (comp_unl_subset_all host pat HwH HwP Hl m Hin).
  - exists m. split; [|apply Permutation_refl]. rewrite all_or_nothing_all.
    apply N.ltb_ge in Hl. rewrite Hl. exact Hin.
Qed.

(** ** a capped exhaustive search gives no result at all (and the property [its_list] returns the empty list) *)
Lemma capped_results (host : hostg) (p : prepared) :
  (thr_val < C06_Model.lenN (enum_all host (p_pat p)))%N ->
  raw_of 0%N host p = [] /\ kept_of 0%N host p = [] /\ glued_of 0%N host p = [] /\
  forall ex, results_of ex 0%N host p = Some [].
Proof.
  intros Hlt.
  assert (E : raw_of 0%N host p = []).
  { unfold raw_of. rewrite all_or_nothing_all. apply N.ltb_lt in Hlt. rewrite Hlt. reflexivity. }
  assert (K : kept_of 0%N host p = []) by (unfold kept_of; rewrite E; reflexivity).
  assert (G : glued_of 0%N host p = []) by (unfold glued_of; rewrite K; reflexivity).
  repeat split; try assumption. intros ex. unfold results_of. rewrite G. destruct ex; reflexivity.
Qed.

End WithThr.

(** ** REFUTED under a cap: "the component-aware strategy returns a subset of the exhaustive strategy".
    Halogen exchange  [C:1][Cl:2].[C:3][Br:4]>>[C:1][Br:4].[C:3][Cl:2]  (centre, implicit mode) on ClCCBr.ClCCBr:
    4 embeddings for the exhaustive search (2 C-Cl x 2 C-Br), 2 for the component-aware one (the two bonds in different
    molecules).  With embed_threshold = 3 the documented guard empties the exhaustive result only. *)
Definition cx_host : hostg := (LG [(1%N, (NA 17260%N false (0)%Z (0)%Z [67%N])); (2%N, (NA 67%N false (2)%Z (0)%Z [67%N; 17260%N])); (3%N, (NA 67%N false (2)%Z (0)%Z [17010%N; 67%N])); (4%N, (NA 17010%N false (0)%Z (0)%Z [67%N])); (5%N, (NA 17260%N false (0)%Z (0)%Z [67%N])); (6%N, (NA 67%N false (2)%Z (0)%Z [67%N; 17260%N])); (7%N, (NA 67%N false (2)%Z (0)%Z [17010%N; 67%N])); (8%N, (NA 17010%N false (0)%Z (0)%Z [67%N]))] [(1%N, 2%N, (2)%Z); (2%N, 3%N, (2)%Z); (3%N, 4%N, (2)%Z); (5%N, 6%N, (2)%Z); (6%N, 7%N, (2)%Z); (7%N, 8%N, (2)%Z)]).
Definition cx_tpl : its := (LG [(1%N, IN (NA 67%N false (0)%Z (0)%Z [17260%N]) (NA 67%N false (0)%Z (0)%Z [17010%N]) 0%Z None); (4%N, IN (NA 17010%N false (0)%Z (0)%Z [67%N]) (NA 17010%N false (0)%Z (0)%Z [67%N]) 0%Z None); (2%N, IN (NA 17260%N false (0)%Z (0)%Z [67%N]) (NA 17260%N false (0)%Z (0)%Z [67%N]) 0%Z None); (3%N, IN (NA 67%N false (0)%Z (0)%Z [17010%N]) (NA 67%N false (0)%Z (0)%Z [17260%N]) 0%Z None)] [(1%N, 4%N, ((0)%Z, (2)%Z, (-2)%Z)); (1%N, 2%N, ((2)%Z, (0)%Z, (2)%Z)); (4%N, 3%N, ((2)%Z, (0)%Z, (2)%Z)); (2%N, 3%N, ((0)%Z, (2)%Z, (-2)%Z))]).
Definition cx_p : prepared :=
  match prepare false true cx_tpl with Some p => p | None => Prep (LG [] []) (LG [] []) (LG [] []) false (LG [] []) end.

Lemma comp_subset_capped_refuted :
  exists (host : hostg) (p : prepared),
    length (@glued_of (thr_of None) 0%N host p) = 4%nat /\ length (@glued_of (thr_of None) 1%N host p) = 2%nat /\
    p_flag p = false /\ @glued_of (thr_of (Some 3%N)) 0%N host p = [] /\
    length (@glued_of (thr_of (Some 3%N)) 1%N host p) = 2%nat /\
    @glued_of (thr_of (Some 3%N)) 2%N host p = @glued_of (thr_of (Some 3%N)) 1%N host p.
Proof. exists cx_host, cx_p. repeat apply conj; vm_compute; reflexivity. Qed.

(** non-vacuity: the cap at exactly the number of embeddings keeps everything, one below empties, cap 0 empties *)
Example cap_examples :
  length (@matches (thr_of (Some 4%N)) 0%N cx_host (p_pat cx_p)) = 4%nat /\
  @matches (thr_of (Some 4%N)) 0%N cx_host (p_pat cx_p) = enum_all cx_host (p_pat cx_p) /\
  @matches (thr_of (Some 3%N)) 0%N cx_host (p_pat cx_p) = [] /\
  (@thr_val (thr_of (Some 3%N)) < C06_Model.lenN (enum_all cx_host (p_pat cx_p)))%N /\
  @matches (thr_of (Some 0%N)) 1%N cx_host (p_pat cx_p) = [] /\
  length (@matches (thr_of (Some 2%N)) 1%N cx_host (p_pat cx_p)) = 2%nat /\
  @matches (thr_of (Some 1%N)) 2%N cx_host (p_pat cx_p) = [].
Proof. repeat apply conj; vm_compute; reflexivity. Qed.

(** non-vacuity of [comp_subset_all_any_cap] / [bt_subset_all_any_cap]: cap 4 = the number of embeddings; the premises hold,
    2 component-aware = fallback matches, each among the 4 exhaustive ones *)
Example subset_any_cap_example :
  C06_Model.gwfb (host_c06 cx_host) = true /\ C06_Model.gwfb (pat_c06 (p_pat cx_p)) = true /\
  (C06_Model.lenN (enum_all cx_host (p_pat cx_p)) <= @thr_val (thr_of (Some 4%N)))%N /\
  length (@matches (thr_of (Some 4%N)) 1%N cx_host (p_pat cx_p)) = 2%nat /\
  length (@matches (thr_of (Some 4%N)) 2%N cx_host (p_pat cx_p)) = 2%nat /\
  forallb (fun m => existsb (fun m' => C11_Model.set_eqb m m') (@matches (thr_of (Some 4%N)) 0%N cx_host (p_pat cx_p)))
          (@matches (thr_of (Some 4%N)) 1%N cx_host (p_pat cx_p)) = true.
Proof. repeat apply conj; vm_compute; try reflexivity. discriminate. Qed.
