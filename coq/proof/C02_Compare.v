(** C02 — compare_graphs (model/C02_Compare.v): exact characterisation, and the library's comparator as the judge of the
    idempotence clause. *)
From Coq Require Import List NArith ZArith Bool.
From SK Require Import lib.LGraph lib.C01_GraphLemmas model.C01_Model model.C02_Model model.C02_Compare
                       proof.C02_Proof proof.C02_Opts proof.C02_Wfb.
Import ListNotations.
Local Open Scope Z_scope.

(** * the equality tests decide equality *)
Lemma opt_eqb_spec {T} (eqb : T -> T -> bool) : (forall x y, eqb x y = true <-> x = y) ->
  forall a b, opt_eqb eqb a b = true <-> a = b.
Proof.
  intros H [x|] [y|]; simpl; try (split; [discriminate|discriminate]); [|tauto].
  rewrite H. split; [intros ->; reflexivity|intros [= ->]; reflexivity].
Qed.

Lemma list_eqb_spec {T} (eqb : T -> T -> bool) : (forall x y, eqb x y = true <-> x = y) ->
  forall a b, list_eqb eqb a b = true <-> a = b.
Proof.
  intros H a. induction a as [|x r IH]; intros [|y s]; simpl; try (split; [discriminate|discriminate]); [tauto|].
  rewrite andb_true_iff, H, IH. split; [intros [-> ->]; reflexivity|intros [= -> ->]; auto].
Qed.

Lemma nattr_eqb_spec a b : nattr_eqb a b = true <-> a = b.
Proof.
  unfold nattr_eqb. rewrite !andb_true_iff, N.eqb_eq, Bool.eqb_true_iff, !Z.eqb_eq, (list_eqb_spec N.eqb N.eqb_eq).
  destruct a, b. simpl. split; [intros ((((-> & ->) & ->) & ->) & ->); reflexivity|intros [= -> -> -> -> ->]; auto].
Qed.

Lemma gh_eqb_spec (s t : nattr * nattr) : nattr_eqb (fst s) (fst t) && nattr_eqb (snd s) (snd t) = true <-> s = t.
Proof.
  rewrite andb_true_iff, !nattr_eqb_spec. destruct s, t. simpl. split; [intros [-> ->]; reflexivity|intros [= -> ->]; auto].
Qed.

Lemma xnode_eqb_spec a b : xnode_eqb a b = true <-> a = b.
Proof.
  unfold xnode_eqb.
  rewrite !andb_true_iff, !(opt_eqb_spec N.eqb N.eqb_eq), !(opt_eqb_spec Z.eqb Z.eqb_eq), (opt_eqb_spec Bool.eqb Bool.eqb_true_iff),
    (opt_eqb_spec (list_eqb N.eqb) (list_eqb_spec N.eqb N.eqb_eq)), (opt_eqb_spec _ gh_eqb_spec).
  destruct a, b. simpl. split; [intros ((((((-> & ->) & ->) & ->) & ->) & ->) & ->); reflexivity|intros [= -> -> -> -> -> -> ->]; tauto].
Qed.

Lemma zz_eqb_spec (s t : Z * Z) : (fst s =? fst t) && (snd s =? snd t) = true <-> s = t.
Proof. rewrite andb_true_iff, !Z.eqb_eq. destruct s, t. simpl. split; [intros [-> ->]; reflexivity|intros [= -> ->]; auto]. Qed.

Lemma seledge_eqb_spec a b : seledge_eqb a b = true <-> a = b.
Proof.
  unfold seledge_eqb. rewrite !andb_true_iff, (opt_eqb_spec _ zz_eqb_spec), (opt_eqb_spec Z.eqb Z.eqb_eq), (opt_eqb_spec Bool.eqb Bool.eqb_true_iff).
  destruct a as [[a1 a2] a3], b as [[b1 b2] b3]. simpl. split; [intros [[-> ->] ->]; reflexivity|intros [= -> -> ->]; auto].
Qed.

Lemma subset_spec l1 l2 : subset l1 l2 = true <-> forall n, In n l1 -> In n l2.
Proof.
  unfold subset. rewrite forallb_forall. split; intros H n I; [apply LGraph.mem_spec|apply LGraph.mem_spec]; apply H; exact I.
Qed.

(** * compare_graphs, characterised *)
Definition same_atoms (g1 g2 : xits) : Prop := forall n, In n (node_ids g1) <-> In n (node_ids g2).
Definition same_labels (NA : keysel) (g1 g2 : xits) : Prop :=
  forall n a b, label g1 n = Some a -> label g2 n = Some b -> sel_attr NA a = sel_attr NA b.
Definition same_pairs (g1 g2 : xits) : Prop := forall u v, adj g1 u v <> None <-> adj g2 u v <> None.
Definition same_bond_attrs (EA : esel) (g1 g2 : xits) : Prop :=
  forall u v x y, adj g1 u v = Some x -> adj g2 u v = Some y -> sel_edge EA x = sel_edge EA y.

Theorem compare_graphs_spec NA EA (g1 g2 : xits) : wf g1 -> wf g2 ->
  (compare_graphs_x NA EA g1 g2 = true <->
   same_atoms g1 g2 /\ same_labels NA g1 g2 /\ same_pairs g1 g2 /\ same_bond_attrs EA g1 g2).
Proof.
  intros W1 W2. unfold compare_graphs_x. rewrite !andb_true_iff, !subset_spec, !forallb_forall. split.
  - intros (((((S12 & S21) & HL) & P12) & P21) & HE). split; [|split; [|split]].
    + intros n. split; [apply S12|apply S21].
    + intros n a b L1 L2. specialize (HL (n, a) (assoc_in n (gnodes g1) L1)). simpl in HL. rewrite L2 in HL. apply xnode_eqb_spec. exact HL.
    + intros u v. split; intros A.
      * destruct (adj g1 u v) as [x|] eqn:A1; [|congruence]. apply (wf_adj_iff W1) in A1.
        destruct A1 as [A1|A1]; specialize (P12 _ A1); simpl in P12.
        -- destruct (adj g2 u v); [discriminate|discriminate].
        -- unfold adj in *. rewrite find_edge_sym. destruct (find_edge v u (gedges g2)); [discriminate|discriminate].
      * destruct (adj g2 u v) as [x|] eqn:A2; [|congruence]. apply (wf_adj_iff W2) in A2.
        destruct A2 as [A2|A2]; specialize (P21 _ A2); simpl in P21.
        -- destruct (adj g1 u v); [discriminate|discriminate].
        -- unfold adj in *. rewrite find_edge_sym. destruct (find_edge v u (gedges g1)); [discriminate|discriminate].
    + intros u v x y A1 A2. apply (wf_adj_iff W1) in A1. destruct A1 as [A1|A1]; specialize (HE _ A1); simpl in HE.
      * rewrite A2 in HE. apply seledge_eqb_spec. exact HE.
      * unfold adj in *. rewrite find_edge_sym in A2. rewrite A2 in HE. apply seledge_eqb_spec. exact HE.
  - intros (SA & SL & SP & SB). repeat split.
    + intros n I. apply SA. exact I.
    + intros n I. apply SA. exact I.
    + intros [n a] I. simpl. assert (label g1 n = Some a) as L1 by (apply assoc_nodup_in; [exact (proj1 W1)|exact I]).
      assert (In n (node_ids g2)) as I2 by (apply SA; eapply label_some_node; eauto).
      destruct (node_label_some I2) as (b & L2). rewrite L2. apply xnode_eqb_spec. eapply SL; eauto.
    + intros [[u v] x] I. assert (adj g1 u v = Some x) as A1 by (apply wf_in_adj; assumption).
      assert (adj g2 u v <> None) as A2 by (apply SP; congruence). destruct (adj g2 u v); [reflexivity|congruence].
    + intros [[u v] x] I. assert (adj g2 u v = Some x) as A2 by (apply wf_in_adj; assumption).
      assert (adj g1 u v <> None) as A1 by (apply SP; congruence). destruct (adj g1 u v); [reflexivity|congruence].
    + intros [[u v] x] I. assert (adj g1 u v = Some x) as A1 by (apply wf_in_adj; assumption).
      assert (adj g2 u v <> None) as A2 by (apply SP; congruence). destruct (adj g2 u v) as [y|] eqn:E; [|congruence].
      apply seledge_eqb_spec. eapply SB; eauto.
Qed.

(** graphs that are equal as labelled graphs compare equal under every selection *)
Corollary geq_compare NA EA (g1 g2 : xits) : wf g1 -> wf g2 -> geq g1 g2 -> compare_graphs_x NA EA g1 g2 = true.
Proof.
  intros W1 W2 [GL GA]. apply (compare_graphs_spec NA EA g1 g2 W1 W2). split; [|split; [|split]].
  - intros n. split; intros I; apply node_label_some in I; destruct I as (a & L); eapply label_some_node; [rewrite <- GL|rewrite GL]; exact L.
  - intros n a b L1 L2. rewrite GL, L2 in L1. injection L1 as ->. reflexivity.
  - intros u v. rewrite GA. tauto.
  - intros u v x y A1 A2. rewrite GA, A2 in A1. injection A1 as ->. reflexivity.
Qed.

(** with every attribute selected the comparator decides equality of labelled graphs *)
Lemma sel_all a : sel_attr K_all a = a.
Proof. destruct a. reflexivity. Qed.
Lemma sel_edge_all x y : sel_edge E_all x = sel_edge E_all y -> x = y.
Proof. destruct x as [[a b c] f], y as [[a' b' c'] f']. unfold sel_edge. simpl. intros [= -> -> -> ->]. reflexivity. Qed.

Corollary compare_all_geq (g1 g2 : xits) : wf g1 -> wf g2 -> (compare_graphs_x K_all E_all g1 g2 = true <-> geq g1 g2).
Proof.
  intros W1 W2. split; [|apply geq_compare; assumption].
  intros C. apply (compare_graphs_spec K_all E_all g1 g2 W1 W2) in C. destruct C as (SA & SL & SP & SB). split.
  - intros n. destruct (label g1 n) as [a|] eqn:L1; destruct (label g2 n) as [b|] eqn:L2.
    + f_equal. specialize (SL n a b L1 L2). rewrite !sel_all in SL. exact SL.
    + exfalso. assert (In n (node_ids g2)) as I by (apply SA; eapply label_some_node; eauto).
      destruct (node_label_some I) as (b & L). congruence.
    + exfalso. assert (In n (node_ids g1)) as I by (apply SA; eapply label_some_node; eauto).
      destruct (node_label_some I) as (a & L). congruence.
    + reflexivity.
  - intros u v. destruct (adj g1 u v) as [x|] eqn:A1; destruct (adj g2 u v) as [y|] eqn:A2.
    + f_equal. apply sel_edge_all. eapply SB; eauto.
    + exfalso. assert (adj g2 u v <> None) as X by (apply SP; congruence). congruence.
    + exfalso. assert (adj g1 u v <> None) as X by (apply SP; congruence). congruence.
    + reflexivity.
Qed.

(** the idempotence clause judged by the library's own comparator, under any selection *)
Theorem compare_rc_idem NA EA K d m (g : xits) : k_el K = true -> k_gh K = true -> wf g ->
  compare_graphs_x NA EA (get_rc_x K d m (get_rc_x K d m g)) (get_rc_x K d m g) = true.
Proof.
  intros Ke Kg W. apply geq_compare; [apply rcx_wf, rcx_wf; exact W|apply rcx_wf; exact W|apply rcx_idem; assumption].
Qed.

(** non-vacuity: the comparator distinguishes a graph from its centre, and accepts the centre of the centre *)
Example C02_compare_nonvacuous :
  wf (emb ex_its) /\ compare_graphs_x K_all E_all (get_rc_x K_default false false (emb ex_its)) (emb ex_its) = false /\
  compare_graphs_x K_all E_all (get_rc_x K_default false false (get_rc_x K_default false false (emb ex_its))) (get_rc_x K_default false false (emb ex_its)) = true /\
  compare_graphs_x (KS false false false false false false false) (ES false false false) (emb ex_its) (emb ex_its) = true.
Proof.
  split; [|vm_compute; repeat split; reflexivity].
  apply wfb_sound. reflexivity.
Qed.
