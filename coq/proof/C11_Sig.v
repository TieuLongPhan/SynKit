(** C11 — deduplicate_matches_with_anchor keeps exactly the FIRST match of every signature class, in input order;
    the host anchor is ignored; PartialMatcher's pruning is that function on WL host orbits.  Stdlib lists. *)
From Coq Require Import List NArith.
From SK Require Import lib.LGraph model.C11_Model proof.C11_Aut proof.C11_Dedup.
Import ListNotations.

(** ---------- signatures are compared by Leibniz equality ---------- *)
Lemma part_eqb_eq a b : part_eqb a b = true <-> a = b.
Proof. exact (prod_eqb_eq leqb leqb leqb_eq leqb_eq a b). Qed.

Lemma parts_eqb_eq a b : parts_eqb a b = true <-> a = b.
Proof. exact (list_eqb_eq _ part_eqb part_eqb_eq a b). Qed.

Lemma sig_eqb_eq (a b : sig) : sig_eqb a b = true <-> a = b.
Proof. exact (prod_eqb_eq parts_eqb lpeqb parts_eqb_eq lpeqb_eq a b). Qed.

Lemma seen_spec s seen : existsb (sig_eqb s) seen = true <-> In s seen.
Proof.
  rewrite existsb_exists. split.
  - intros (t & Ht & E). apply sig_eqb_eq in E. subst. exact Ht.
  - intros H. exists s. split; [exact H | apply sig_eqb_eq; reflexivity].
Qed.

Section First.
Variable X : Type.
Variable key : X -> mapping.
Variable sg : mapping -> option sig.

Definition same_sig (x z : X) : Prop := sg (key z) = sg (key x).

Definition unseen (seen : list sig) (x : X) : Prop := forall s, sg (key x) = Some s -> ~ In s seen.

Lemma dedup_sig_go_defined xs : forall seen out, dedup_sig_go key sg xs seen = Some out ->
  forall x, In x xs -> exists s, sg (key x) = Some s.
Proof.
  induction xs as [|h r IH]; intros seen out H x Hx; [destruct Hx|].
  simpl in H. destruct (sg (key h)) as [s|] eqn:E; [|discriminate].
  destruct Hx as [<-|Hx]; [eauto|].
  destruct (existsb (sig_eqb s) seen).
  - eapply IH; eauto.
  - destruct (dedup_sig_go key sg r (s :: seen)) as [o|] eqn:E'; [|discriminate]. eapply IH; eauto.
Qed.

Lemma dedup_sig_go_first xs : forall seen out, NoDup xs -> dedup_sig_go key sg xs seen = Some out ->
  forall x, In x out <-> (In x xs /\ first_among same_sig xs x /\ unseen seen x).
Proof.
  induction xs as [|h r IH]; intros seen out Hnd H x.
  - injection H as <-. simpl. tauto.
  - inversion Hnd as [|? ? Hh Hr]; subst. simpl in H.
    destruct (sg (key h)) as [s|] eqn:Es; [|discriminate].
    rewrite <- and_assoc, (first_among_cons same_sig h r x Hh). unfold same_sig.
    destruct (existsb (sig_eqb s) seen) eqn:Eseen.
    + (* [h] is dropped, and whatever is unseen differs from it *)
      apply seen_spec in Eseen. rewrite (IH seen out Hr H x). split.
      * intros (Hx & Hf & Hu). split; [|exact Hu]. right. split; [exact Hx|]. split; [exact Hf|].
        intros E. rewrite Es in E. exact (Hu s (eq_sym E) Eseen).
      * intros [[->|(Hx & Hf & _)] Hu]; [exfalso; exact (Hu s Es Eseen) | auto].
    + (* [h] is kept; unseen after [h] = unseen before and different from [h] *)
      destruct (dedup_sig_go key sg r (s :: seen)) as [o|] eqn:Eo; [|discriminate]. injection H as <-.
      assert (Hnotseen : ~ In s seen) by (intros Hin; apply seen_spec in Hin; congruence).
      simpl. rewrite (IH (s :: seen) o Hr Eo x). split.
      * intros [<-|(Hx & Hf & Hu)].
        -- split; [left; reflexivity|]. intros s' Es'. rewrite Es in Es'. injection Es' as <-. exact Hnotseen.
        -- split.
           ++ right. split; [exact Hx|]. split; [exact Hf|]. intros E. rewrite Es in E. apply (Hu s (eq_sym E)). left. reflexivity.
           ++ intros s' Es' Hin. apply (Hu s' Es'). right. exact Hin.
      * intros [[->|(Hx & Hf & Hn)] Hu]; [left; reflexivity|]. right. split; [exact Hx|]. split; [exact Hf|].
        intros s' Es' [<-|Hin]; [apply Hn; congruence | exact (Hu s' Es' Hin)].
Qed.

Lemma dedup_sig_first xs out : NoDup xs -> dedup_sig_go key sg xs [] = Some out ->
  forall x, In x out <-> (In x xs /\ first_among same_sig xs x).
Proof.
  intros Hnd H x. rewrite (dedup_sig_go_first xs [] out Hnd H x).
  split; [intros (Hx & Hf & _); auto | intros (Hx & Hf); split; [exact Hx | split; [exact Hf | intros s _ []]]].
Qed.
End First.

(** the signature deduplicate_matches_with_anchor computes for one match, given its orbit arguments *)
Definition anchor_signature (porbs : option (list (list N))) (anchor : list N) (horbs : option (list (list N)))
  : mapping -> option sig :=
  let '(free, anchored) := prepare porbs anchor in
  signature (match free, anchored with [], [] => false | _, _ => true end) free anchored horbs.

Lemma dedup_anchor_sig {X} (key : X -> mapping) xs porbs anchor horbs :
  dedup_anchor key xs porbs anchor horbs =
    match porbs, horbs with
    | None, None => Some xs
    | _, _ => dedup_sig_go key (anchor_signature porbs anchor horbs) xs []
    end.
Proof.
  unfold dedup_anchor, anchor_signature. destruct porbs, horbs; try reflexivity;
    destruct (prepare _ anchor) as [free anchored]; reflexivity.
Qed.

Lemma dedup_anchor_first_all (X : Type) (key : X -> mapping) (xs : list X) porbs anchor horbs hanchor out :
  NoDup xs ->
  dedup_anchor_h key xs porbs anchor horbs hanchor = Some out ->
  subseq out xs /\
  dedup_anchor_h key xs porbs anchor horbs None = Some out /\
  ((porbs = None /\ horbs = None /\ out = xs) \/
   ((porbs <> None \/ horbs <> None) /\
    (forall x, In x xs -> anchor_signature porbs anchor horbs (key x) <> None) /\
    forall x, In x out <->
      (In x xs /\ forall l1 l2, xs = l1 ++ x :: l2 -> forall z, In z l1 ->
                    anchor_signature porbs anchor horbs (key z) <> anchor_signature porbs anchor horbs (key x)))).
Proof.
  intros Hnd H. unfold dedup_anchor_h in *. split; [eapply dedup_anchor_subseq; eauto|]. split; [exact H|].
  rewrite dedup_anchor_sig in H.
  destruct porbs as [po|], horbs as [ho|]; [right | right | right | left; injection H as <-; auto];
    (split; [first [left; discriminate | right; discriminate]|]; split;
       [intros x Hx; destruct (dedup_sig_go_defined X key _ xs [] out H x Hx) as (s & ->); discriminate
       | exact (dedup_sig_first X key _ xs out Hnd H)]).
Qed.

Lemma partial_prune_spec (X : Type) (key : X -> mapping) (fn : nlab -> N) (h : graph) (k : nat) (xs : list X) :
  partial_prune key fn h k xs =
    match xs with
    | [] => Some []
    | _ => dedup_anchor key xs None [] (Some (wl_orbits (wl fn e_order h k)))
    end.
Proof. destruct xs; reflexivity. Qed.

Lemma partial_prune_subseq (X : Type) (key : X -> mapping) fn h k (xs out : list X) :
  partial_prune key fn h k xs = Some out -> subseq out xs.
Proof.
  rewrite partial_prune_spec. destruct xs as [|x r]; [intros [= <-]; constructor|].
  apply dedup_anchor_subseq.
Qed.

(** non-vacuity: the coordinator's wave-2 input (C-O on ethanol . dimethyl ether . ethanol, descending ids): with the WL
    host orbits the second and the fourth match fall into classes already seen; the FIRST of each class is kept *)
Definition ex_host : graph :=
  LG [(9, (0, 0, 0)); (8, (0, 0, 0)); (7, (1, 1, 1)); (6, (0, 0, 0)); (5, (1, 1, 1)); (4, (0, 0, 0));
      (3, (0, 0, 0)); (2, (0, 0, 0)); (1, (1, 1, 1))]%N
     [(9, 8, (0, 0)); (8, 7, (0, 0)); (6, 5, (0, 0)); (5, 4, (0, 0)); (3, 2, (0, 0)); (2, 1, (0, 0))]%N.
Definition ex_ms : list mapping := [[(1, 8); (2, 7)]; [(1, 4); (2, 5)]; [(1, 6); (2, 5)]; [(1, 2); (2, 1)]]%N.
Example ex_partial_prune :
  partial_prune (fun m : mapping => m) n_exact ex_host 10 ex_ms = Some [[(1, 8); (2, 7)]; [(1, 4); (2, 5)]]%N /\
  wl_anchor ex_host = [1; 2; 3]%N /\ NoDup ex_ms.
Proof.
  split; [vm_compute; reflexivity|]. split; [vm_compute; reflexivity|].
  repeat constructor; simpl; intuition discriminate.
Qed.
