(** C11 — the computable well-formedness and domain tests, the group laws, every node lies in a reported orbit, the
    orbit-list form of the WL statement, VF2 as a premise, pruning in terms of functions, and the non-vacuity
    examples.  Stdlib lists. *)
From Coq Require Import List NArith Arith Bool Lia Permutation.
From SK Require Import lib.LGraph lib.Reach model.C11_Model proof.C11_Aut proof.C11_WL proof.C11_Dedup.
Import ListNotations.

(** ---------- [wfb] decides the premise ---------- *)
Lemma nodupb_spec l : nodupb l = true -> NoDup l.
Proof.
  induction l as [|x r IH]; simpl; [constructor|].
  rewrite andb_true_iff, negb_true_iff. intros [H1 H2]. constructor; [|auto].
  intros Hin. apply LGraph.mem_spec in Hin. congruence.
Qed.

Lemma uniq_edges_spec es : uniq_edges es = true ->
  forall l1 a b x l2, es = l1 ++ (a, b, x) :: l2 -> find_edge a b l1 = None /\ find_edge a b l2 = None.
Proof.
  intros H l1. revert es H. induction l1 as [|[[a' b'] x'] l1 IH]; intros es H a b x l2 E; subst es; simpl in H.
  - destruct (find_edge a b l2) eqn:F; [discriminate|]. auto.
  - destruct (find_edge a' b' (l1 ++ (a, b, x) :: l2)) eqn:F; [discriminate|].
    destruct (IH _ H a b x l2 eq_refl) as [H1 H2]. split; [|exact H2].
    simpl. destruct ((N.eqb a' a && N.eqb b' b) || (N.eqb a' b && N.eqb b' a)) eqn:T; [|exact H1].
    exfalso.
    assert (Hin : In (a, b, x) (l1 ++ (a, b, x) :: l2)) by (apply in_or_app; right; left; reflexivity).
    apply orb_true_iff in T. destruct T as [T|T]; apply andb_true_iff in T; destruct T as [T1 T2];
      apply N.eqb_eq in T1; apply N.eqb_eq in T2; subst.
    + exact (find_edge_in _ _ _ _ Hin F).
    + rewrite find_edge_sym in F. exact (find_edge_in _ _ _ _ Hin F).
Qed.

Lemma wfb_wf g : wfb g = true -> wf g.
Proof.
  unfold wfb. rewrite !andb_true_iff. intros [[H1 H2] H3]. split; [|split].
  - apply nodupb_spec. exact H1.
  - intros a b x Hin. rewrite forallb_forall in H2. specialize (H2 _ Hin). simpl in H2.
    rewrite !andb_true_iff, negb_true_iff in H2. destruct H2 as [[Ha Hb] Hn].
    apply LGraph.mem_spec in Ha. apply LGraph.mem_spec in Hb. apply N.eqb_neq in Hn. auto.
  - apply uniq_edges_spec. exact H3.
Qed.

Lemma dom_ok_spec (rc : graph) (raw : list mapping) : dom_ok rc raw = true ->
  forall m p h, In m raw -> In (p, h) m -> In p (node_ids rc).
Proof.
  unfold dom_ok. rewrite forallb_forall. intros H m p h Hm Hin. specialize (H m Hm). rewrite forallb_forall in H.
  apply LGraph.mem_spec. exact (H (p, h) Hin).
Qed.

(** ---------- clause 1: the automorphisms form a group ---------- *)
Lemma aut_group (fn : nlab -> N) (fe : elab -> N) (g : graph) : simple_graph g ->
  is_automorphism fn fe g (fun u => u) /\
  (forall s t, is_automorphism fn fe g s -> is_automorphism fn fe g t -> is_automorphism fn fe g (fun u => s (t u))) /\
  (forall s, is_automorphism fn fe g s ->
     exists t, is_automorphism fn fe g t /\ forall u, In u (node_ids g) -> t (s u) = u /\ s (t u) = u).
Proof.
  intros Hg. split; [|split].
  - apply isaut_id.
  - intros s t. apply isaut_comp.
  - intros s Hs. exists (inv_fun g s). split; [apply isaut_inv; [exact Hg | exact Hs]|].
    intros u Hu.
    pose proof (inv_fun_spec fn fe g Hg s Hs) as Hi.
    split; [|apply Hi; exact Hu].
    assert (Hsu : In (s u) (node_ids g)) by (apply Hs; exact Hu).
    destruct (Hi (s u) Hsu) as [Hin E]. destruct Hs as (_ & S2 & _ & _). apply S2; auto.
Qed.

(** ---------- clause 2: the orbits ---------- *)

(** every node lies in a reported component, hence (also for a disconnected graph) in a reported orbit *)
Lemma saturate_incl nbr fuel : forall S R, saturate nbr fuel S = Some R -> incl S R.
Proof.
  induction fuel as [|f IH]; intros S R H; simpl in H; [discriminate|].
  destruct (length (step nbr S) =? length S)%nat.
  - inversion H; subst. apply incl_refl.
  - intros x Hx. apply (IH _ _ H). apply step_in. left. exact Hx.
Qed.

Lemma comp_of_seed (g : graph) u : In u (comp_of g u).
Proof.
  unfold comp_of. destruct (saturate (nbrs g) (S (length (gnodes g))) [u]) as [R|] eqn:E; [|left; reflexivity].
  apply (saturate_incl _ _ _ _ E). left. reflexivity.
Qed.

Lemma comps_go_cover (g : graph) todo : forall seen u, In u todo ->
  In u seen \/ exists c, In c (comps_go g todo seen) /\ In u c.
Proof.
  induction todo as [|h r IH]; intros seen u Hin; [destruct Hin|].
  simpl. destruct Hin as [->|Hin].
  - destruct (LGraph.mem u seen) eqn:E; [left; apply LGraph.mem_spec; exact E|].
    right. exists (comp_of g u). split; [left; reflexivity | apply comp_of_seed].
  - destruct (LGraph.mem h seen) eqn:E; [apply IH; exact Hin|].
    destruct (IH (comp_of g h ++ seen) u Hin) as [H|(c & Hc & Hu)].
    + apply in_app_or in H. destruct H as [H|H]; [|left; exact H].
      right. exists (comp_of g h). split; [left; reflexivity | exact H].
    + right. exists c. split; [right; exact Hc | exact Hu].
Qed.

Lemma components_cover (g : graph) u : In u (node_ids g) -> exists c, In c (components g) /\ In u c.
Proof.
  intros Hu. destruct (comps_go_cover g (node_ids g) [] u Hu) as [[]|H]. exact H.
Qed.

Lemma induced_node (g : graph) c u : In u (node_ids g) -> In u c -> In u (node_ids (induced_sub g c)).
Proof.
  intros Hu Hc. unfold node_ids in *. unfold induced_sub. simpl.
  apply in_map_iff in Hu. destruct Hu as ([u' a] & E & Hin). simpl in E. subst u'.
  apply in_map_iff. exists (u, a). split; [reflexivity|]. apply filter_In. split; [exact Hin|].
  simpl. apply LGraph.mem_spec. exact Hc.
Qed.

Lemma orbits_cover (fn : nlab -> N) (fe : elab -> N) (g : graph) : simple_graph g ->
  forall u, In u (node_ids g) -> exists o, In o (a_orbits (analyze fn fe g)) /\ In u o.
Proof.
  intros Hg u Hu. destruct (le_lt_dec (length (components g)) 1) as [Hc|Hc].
  - apply (analyze_orbits_connected fn fe g Hg Hc). exact Hu.
  - destruct (components_cover g u Hu) as (c & Hcin & Huc).
    destruct (analyze_component_orbits fn fe (induced_sub g c) (induced_simple g c Hg)) as (H1 & _).
    destruct (H1 u (induced_node g c u Hu Huc)) as (o & Ho & Huo).
    exists o. split; [|exact Huo]. apply (analyze_orbits_disconnected fn fe g Hg Hc). eauto.
Qed.

(** ---------- clause 2, second sentence: the WL-1 estimate, orbit-list form ---------- *)
Lemma assign_length {X} (xeqb : X -> X -> bool) labels : forall seen, length (assign xeqb labels seen) = length labels.
Proof.
  induction labels as [|x r IH]; intros seen; simpl; [reflexivity|].
  destruct (index_of xeqb x seen 0%N); simpl; rewrite IH; reflexivity.
Qed.

Lemma map_fst_combine {Y} (ids : list N) (l : list Y) : length l = length ids -> map fst (combine ids l) = ids.
Proof.
  revert l. induction ids as [|i ids IH]; intros [|y l] H; simpl in *; try discriminate; [reflexivity|].
  f_equal. apply IH. lia.
Qed.

Lemma wl_init_nodes fn (g : graph) : map fst (wl_init fn g) = node_ids g.
Proof.
  unfold wl_init. apply map_fst_combine. rewrite assign_length, map_length. unfold node_ids. rewrite map_length. reflexivity.
Qed.

Lemma refine_once_nodes fe (g : graph) cs : map fst (fst (refine_once fe g cs)) = node_ids g.
Proof.
  unfold refine_once. simpl. apply map_fst_combine. rewrite assign_length, map_length. reflexivity.
Qed.

Lemma refine_nodes fe (g : graph) k : forall cs, map fst cs = node_ids g -> map fst (refine fe g k cs) = node_ids g.
Proof.
  induction k as [|k IH]; intros cs H; [exact H|].
  change (map fst (let '(cs', ch) := refine_once fe g cs in if ch then refine fe g k cs' else cs') = node_ids g).
  pose proof (refine_once_nodes fe g cs) as H1. destruct (refine_once fe g cs) as [cs' ch]. simpl in H1.
  destruct ch; [apply IH; exact H1 | exact H1].
Qed.

Lemma wl_nodes fn fe (g : graph) k : map fst (wl fn fe g k) = node_ids g.
Proof. unfold wl. apply refine_nodes. apply wl_init_nodes. Qed.

(** [wl_orbits cs] is [sort_by key_leb (classes cs)] *)
Lemma wl_orbits_in cs o : In o (wl_orbits cs) <-> In o (classes cs).
Proof.
  pose proof (sort_by_perm _ key_leb (classes cs)) as P.
  split; apply Permutation_in; [exact P | apply Permutation_sym; exact P].
Qed.

Lemma classes_in cs o : In o (classes cs) <->
  exists c, In c (map snd cs) /\ o = map fst (filter (fun p => N.eqb (snd p) c) cs).
Proof.
  unfold classes. rewrite in_map_iff. split.
  - intros (c & E & Hc). exists c. split; [|auto]. rewrite <- in_rev, dedupN_in, <- in_rev in Hc. exact Hc.
  - intros (c & Hc & E). exists c. split; [auto|]. rewrite <- in_rev, dedupN_in, <- in_rev. exact Hc.
Qed.

Lemma class_member cs c u : NoDup (map fst cs) ->
  (In u (map fst (filter (fun p => N.eqb (snd p) c) cs)) <-> In u (map fst cs) /\ col cs u = c).
Proof.
  intros Hnd. rewrite in_map_iff. split.
  - intros ([u' c'] & E & Hin). simpl in E. subst u'. apply filter_In in Hin. destruct Hin as [Hin Hc].
    simpl in Hc. apply N.eqb_eq in Hc. subst c'. split.
    + apply in_map_iff. exists (u, c). auto.
    + unfold col. erewrite assoc_nodup_in; eauto.
  - intros [Hu Hc]. destruct (assoc_some_in u cs Hu) as (a & Ea). exists (u, a). split; [reflexivity|].
    apply filter_In. split; [apply assoc_in; exact Ea|]. simpl. unfold col in Hc. rewrite Ea in Hc. subst a.
    apply N.eqb_refl.
Qed.

Lemma wl_orbits_never_split fn fe (g : graph) k o u v : wf g ->
  In o (wl_orbits (wl fn fe g k)) -> In u o -> same_orbit fn fe g u v -> In v o.
Proof.
  intros Hwf Ho Hu Hrel. apply wl_orbits_in, classes_in in Ho. destruct Ho as (c & _ & ->).
  assert (Hnd : NoDup (map fst (wl fn fe g k))) by (rewrite wl_nodes; apply Hwf).
  apply (class_member _ c u Hnd) in Hu. destruct Hu as [Hun Hc].
  apply (class_member _ c v Hnd). split.
  - rewrite wl_nodes. apply (same_orbit_nodes fn fe g (wf_simple g Hwf) u v Hrel).
  - destruct Hrel as (m & Hm & Hin). rewrite (wl_never_splits_listed fn fe g k m u v Hwf Hm Hin). exact Hc.
Qed.

(** ---------- VF2 as an explicit premise ---------- *)
(** The component analysis as a function of the enumeration it is handed (Automorphism._analyze_component with
    [gm.isomorphisms_iter()] abstracted). *)
Lemma analyze_component_with_auts fn fe (g : graph) :
  analyze_component fn fe g = analyze_component_with (node_ids g) (auts fn fe g).
Proof. unfold analyze_component, analyze_component_with. destruct (node_ids g) as [|n [|n' r]]; reflexivity. Qed.

Lemma analyze_component_with_ext ns (E1 E2 : list mapping) :
  length E1 = length E2 -> (forall u, orbit_set E1 u = orbit_set E2 u) ->
  analyze_component_with ns E1 = analyze_component_with ns E2.
Proof.
  intros Hl Ho. unfold analyze_component_with. destruct ns as [|n [|n' r]]; try reflexivity.
  destruct E1 as [|e1 E1'], E2 as [|e2 E2']; try discriminate; [reflexivity|].
  rewrite Hl. f_equal. f_equal. apply map_ext. exact Ho.
Qed.

(** ---------- clause 4 at the level of functions: m = m' o sigma^-1 for a rule automorphism sigma ---------- *)
Lemma assoc_none_notin {V} k (l : list (N * V)) : assoc k l = None -> ~ In k (map fst l).
Proof. intros H Hin. destruct (assoc_some_in k l Hin) as (a & E). congruence. Qed.

Lemma assoc_rev_nodup {V} k (l : list (N * V)) : NoDup (map fst l) -> assoc k (rev l) = assoc k l.
Proof.
  intros Hnd. assert (Hnd' : NoDup (map fst (rev l))) by (rewrite map_rev; apply NoDup_rev; exact Hnd).
  destruct (assoc k l) as [v|] eqn:E.
  - apply assoc_in in E. eapply assoc_nodup_in; [exact Hnd' | rewrite <- in_rev; exact E].
  - apply assoc_not_in. rewrite map_rev, <- in_rev. apply assoc_none_notin. exact E.
Qed.

Lemma app_map_aut_pairs (g : graph) (s : N -> N) p : NoDup (node_ids g) -> In p (node_ids g) -> app_map (aut_pairs g s) p = s p.
Proof.
  intros Hnd Hp. unfold app_map, aut_pairs. rewrite assoc_rev_nodup.
  - rewrite <- combine_map_pairs, (assoc_combine_map s _ _ Hp). reflexivity.
  - rewrite map_map. simpl. rewrite map_id. exact Hnd.
Qed.

(** the items of [m] are those of [m'], possibly with the pattern side moved by a listed rule symmetry, iff
    m = m' o sigma^-1 for an automorphism sigma of the rule centre *)
Lemma items_moved_fun (rc : graph) (m m' : mapping) : simple_graph rc ->
  (forall p h, In (p, h) m' -> In p (node_ids rc)) ->
  (set_eqb m m' = true \/ (exists s, In s (rule_auts rc) /\ set_eqb m (act s m') = true) <->
   exists s, is_automorphism n_full e_full rc s /\
             forall p h, In (p, h) m <-> exists p', In (p', h) m' /\ p = s p').
Proof.
  intros Hg Hm'. split.
  - intros [E|(t & Ht & E)].
    + exists (fun u => u). split; [apply isaut_id|]. rewrite set_eqb_spec in E. intros p h. rewrite (E (p, h)).
      split; [intros H; exists p; auto | intros (p' & H & ->); exact H].
    + apply (auts_listing n_full e_full rc Hg) in Ht. destruct Ht as (s & Hs & ->). exists s. split; [exact Hs|].
      rewrite set_eqb_spec in E. intros p h. rewrite (E (p, h)), in_act.
      split; intros (p' & H & ->); exists p'; (split; [exact H|]);
        [|symmetry]; apply app_map_aut_pairs; try apply Hg; eapply Hm'; eauto.
  - intros (s & Hs & H). right. exists (aut_pairs rc s). split.
    + apply (auts_listing n_full e_full rc Hg). eauto.
    + apply set_eqb_spec. intros [p h]. rewrite (H p h), in_act.
      split; intros (p' & Hin & ->); exists p'; (split; [exact Hin|]);
        [symmetry|]; apply app_map_aut_pairs; try apply Hg; eapply Hm'; eauto.
Qed.

Lemma prune_complete_fun (X : Type) (key : X -> mapping) (rc : graph) (raw : list X) :
  simple_graph rc ->
  (forall x p h, In x raw -> In (p, h) (key x) -> In p (node_ids rc)) ->
  forall x, In x raw ->
  exists y, In y (prune key rc raw) /\
    exists s, is_automorphism n_full e_full rc s /\
      forall p h, In (p, h) (key x) <-> exists p', In (p', h) (key y) /\ p = s p'.
Proof.
  intros Hg Hdom x Hx. destruct (prune_covers X key rc raw x Hx) as (y & Hy & Hc). exists y. split; [exact Hy|].
  apply (items_moved_fun rc (key x) (key y) Hg).
  - intros p h. apply (Hdom y). exact (subseq_in _ _ _ (prune_subseq X key rc raw) Hy).
  - destruct Hc as [->|Hc]; [left; apply set_eqb_refl | exact Hc].
Qed.

(** ---------- non-vacuity ---------- *)
(** propene-like path 1 - 2 = 3 with labels C, C, O is asymmetric; the path C - C - C below has the mirror symmetry *)
Definition ex_path : graph :=
  LG [(1, (0, 0, 0)); (2, (0, 0, 0)); (3, (0, 0, 0))]%N [(1, 2, (0, 0)); (2, 3, (0, 0))]%N.
(** two components: an edge and an isolated node *)
Definition ex_disc : graph :=
  LG [(1, (0, 0, 0)); (2, (0, 0, 0)); (5, (0, 0, 0))]%N [(1, 2, (0, 0))]%N.

Example ex_path_wf : wf ex_path.
Proof. apply wfb_wf. vm_compute. reflexivity. Qed.
Example ex_disc_wf : wf ex_disc.
Proof. apply wfb_wf. vm_compute. reflexivity. Qed.

Example ex_aut_count :
  simple_graph ex_path /\ length (auts n_exact e_order ex_path) = 2%nat /\ a_count (analyze n_exact e_order ex_path) = 2%N /\
  simple_graph ex_disc /\ length (components ex_disc) = 2%nat /\ a_count (analyze n_exact e_order ex_disc) = 2%N.
Proof.
  split; [apply wf_simple, ex_path_wf|]. split; [vm_compute; reflexivity|]. split; [vm_compute; reflexivity|].
  split; [apply wf_simple, ex_disc_wf|]. split; vm_compute; reflexivity.
Qed.

Example ex_orbits :
  a_orbits (analyze n_exact e_order ex_path) = [[2]; [1; 3]]%N /\
  same_orbit n_exact e_order ex_path 1 3 /\ ~ same_orbit n_exact e_order ex_path 1 2 /\
  a_orbits (analyze n_exact e_order ex_disc) = [[1; 2]; [5]]%N.
Proof.
  split; [vm_compute; reflexivity|]. split; [|split; [|vm_compute; reflexivity]].
  - exists [(3, 1); (2, 2); (1, 3)]%N. split; [vm_compute; tauto | right; right; left; reflexivity].
  - intros H.
    destruct (analyze_orbits_connected n_exact e_order ex_path (wf_simple _ ex_path_wf) ltac:(vm_compute; lia))
      as (_ & _ & _ & _ & H5).
    specialize (H5 [1; 3]%N 1%N 2%N).
    assert (Ho : In [1; 3]%N (a_orbits (analyze n_exact e_order ex_path))) by (vm_compute; tauto).
    apply (H5 Ho) in H; [|left; reflexivity]. simpl in H. intuition discriminate.
Qed.

Example ex_wl :
  map snd (wl n_exact e_order ex_path 10) = [0; 1; 0]%N /\
  wl_orbits (wl n_exact e_order ex_path 10) = [[2]; [1; 3]]%N /\
  is_automorphism n_exact e_order ex_path (fun u => if N.eqb u 1 then 3 else if N.eqb u 3 then 1 else u)%N.
Proof.
  split; [vm_compute; reflexivity|]. split; [vm_compute; reflexivity|].
  unfold is_automorphism.
  assert (Hn : forall u, In u (node_ids ex_path) -> u = 1%N \/ u = 2%N \/ u = 3%N) by (simpl; intuition).
  repeat split.
  - intros u Hu. destruct (Hn u Hu) as [-> | [-> | ->]]; vm_compute; tauto.
  - intros u v Hu Hv. destruct (Hn u Hu) as [-> | [-> | ->]], (Hn v Hv) as [-> | [-> | ->]]; vm_compute; congruence.
  - intros u Hu. destruct (Hn u Hu) as [-> | [-> | ->]]; vm_compute; reflexivity.
  - intros u v Hu Hv. destruct (Hn u Hu) as [-> | [-> | ->]], (Hn v Hv) as [-> | [-> | ->]]; vm_compute; reflexivity.
Qed.

(** a rule centre with the mirror symmetry 1 <-> 3: the two matches that differ by it are merged, the third is kept *)
Definition ex_raw : list mapping := [[(1, 7); (2, 8); (3, 9)]; [(1, 9); (2, 8); (3, 7)]; [(1, 7); (2, 8); (3, 6)]]%N.
Example ex_prune :
  prune (fun m : mapping => m) ex_path ex_raw = [[(1, 7); (2, 8); (3, 9)]; [(1, 7); (2, 8); (3, 6)]]%N /\
  length (rule_auts ex_path) = 2%nat.
Proof. split; vm_compute; reflexivity. Qed.
