(** C07 — maximum_connected_common_subgraph / heuristics_MCCS (model/C07_MCCS.v).
    The returned graph is an induced subgraph of the smaller input on some node subset, it is connected (or has at most one node),
    it occurs as an induced subgraph of the larger input under the label matchers, and no connected induced subgraph of the smaller
    input with MORE nodes does.  Stdlib lists. *)
From Coq Require Import List NArith Arith Lia Permutation.
From SK Require Import lib.LGraph lib.Reach lib.C01_GraphLemmas model.C07_Model model.C07_MCCS
  proof.C07_Spec proof.C07_Filters proof.C07_Main proof.C07_WL proof.C07_Examples.
Import ListNotations.

Definition reach (g : graph) (s x : N) : Prop := conn (nbrs g) [s] x.
Definition all_connected (g : graph) : Prop := forall x y, In x (node_ids g) -> In y (node_ids g) -> reach g x y.
Definition admissible_spec (g : graph) : Prop := n_nodes g <= 1 \/ all_connected g.

Lemma reach_refl g x : reach g x x.
Proof. apply conn_seed. left. reflexivity. Qed.

Lemma reach_trans g a b c : reach g a b -> reach g b c -> reach g a c.
Proof.
  intros Hab Hbc. induction Hbc as [x [<-|[]]|u v _ IH I]; [exact Hab|]. eapply conn_step; eauto.
Qed.

Lemma nbrs_sym g u v : gwf g -> In v (nbrs g u) -> In u (nbrs g v).
Proof.
  intros W I. destruct (nbrs_wf g u v W I) as (_ & _ & _ & A). apply adj_nbrs. rewrite LGraph.adj_sym. exact A.
Qed.

Lemma reach_sym g a b : gwf g -> reach g a b -> reach g b a.
Proof.
  intros W H. induction H as [x [<-|[]]|u v _ IH I]; [apply reach_refl|].
  eapply reach_trans; [|exact IH]. eapply conn_step; [apply reach_refl|]. apply nbrs_sym; auto.
Qed.

Lemma connected_spec g : gwf g -> node_ids g <> [] -> (connected g = true <-> all_connected g).
Proof.
  intros W Hne. unfold connected. destruct (node_ids g) as [|s r] eqn:En; [congruence|].
  assert (Hin : forall a b, In b (nbrs g a) -> In b (node_ids g)) by (intros a b I; apply (nbrs_wf g a b W I)).
  assert (Is : In s (node_ids g)) by (rewrite En; left; reflexivity).
  pose proof (@saturate_fuel (node_ids g) (nbrs g) Hin (S (length (node_ids g))) [s]) as Hf.
  rewrite <- En. destruct (saturate (nbrs g) (S (length (node_ids g))) [s]) as [R|] eqn:E.
  - assert (HR : forall x, In x R <-> reach g s x).
    { apply (@saturate_spec (nbrs g) [s] (S (length (node_ids g))) [s] R); auto. intros y I. apply conn_seed. exact I. }
    rewrite forallb_forall. split.
    + intros A x y Ix Iy. eapply reach_trans; [apply reach_sym; auto; apply HR, LGraph.mem_spec, A; exact Ix|].
      apply HR, LGraph.mem_spec, A. exact Iy.
    + intros A x Ix. apply LGraph.mem_spec, HR. apply A; auto.
  - exfalso. apply Hf; auto.
    + constructor; [intros []|constructor].
    + intros y [<-|[]]. exact Is.
    + simpl. lia.
Qed.

Lemma admissible_iff g : gwf g -> (admissible g = true <-> admissible_spec g).
Proof.
  intros W. unfold admissible, admissible_spec. destruct (1 <? n_nodes g) eqn:L; simpl.
  - apply Nat.ltb_lt in L. rewrite connected_spec; auto.
    + split; [tauto|]. intros [A|A]; [lia|exact A].
    + intros E. rewrite n_nodes_ids, E in L. simpl in L. lia.
  - apply Nat.ltb_ge in L. split; auto.
Qed.

Lemma combs_complete {X} (p : X -> bool) (l : list X) : In (filter p l) (combs (length (filter p l)) l).
Proof.
  induction l as [|x r IH]; simpl; [left; reflexivity|]. destruct (p x) eqn:E; simpl.
  - apply in_or_app. left. apply in_map. exact IH.
  - destruct (length (filter p r)) as [|k] eqn:K.
    + left. destruct (filter p r); [reflexivity|discriminate].
    + apply in_or_app. right. exact IH.
Qed.

Lemma combs_sound {X} (l : list X) : forall k T, In T (combs k l) -> length T = k /\ incl T l /\ (NoDup l -> NoDup T).
Proof.
  induction l as [|x r IH]; intros [|k] T I; simpl in I.
  - destruct I as [<-|[]]. repeat split; auto. intros y [].
  - destruct I.
  - destruct I as [<-|[]]. repeat split; auto; [intros y []|constructor].
  - apply in_app_or in I. destruct I as [I|I].
    + apply in_map_iff in I. destruct I as (T0 & <- & IT). destruct (IH k T0 IT) as (A & B & C). simpl. split; [lia|]. split.
      * intros y [<-|Iy]; [left; reflexivity|right; apply B; exact Iy].
      * intros Hnd. inversion Hnd as [|? ? Hx Hr]; subst. constructor; [|apply C; exact Hr]. intros Ix. apply Hx, B, Ix.
    + destruct (IH (S k) T I) as (A & B & C). split; [exact A|]. split.
      * intros y Iy. right. apply B. exact Iy.
      * intros Hnd. inversion Hnd; subst. apply C. assumption.
Qed.

Lemma induced_ext (g : graph) k1 k2 : (forall x, In x k1 <-> In x k2) -> induced_sub g k1 = induced_sub g k2.
Proof.
  intros H. assert (M : forall x, LGraph.mem x k1 = LGraph.mem x k2).
  { intros x. apply bool_iff. rewrite !LGraph.mem_spec. apply H. }
  unfold induced_sub. f_equal.
  - apply filter_ext. intros p. apply M.
  - apply filter_ext. intros [[a b] x]. rewrite !M. reflexivity.
Qed.

Lemma induced_nil (g : graph) : induced_sub g [] = LG [] [].
Proof.
  unfold induced_sub. f_equal.
  - induction (gnodes g) as [|p r IH]; simpl; auto.
  - induction (gedges g) as [|[[a b] x] r IH]; simpl; auto.
Qed.

Lemma induced_ids (g : graph) keep : node_ids (induced_sub g keep) = filter (fun x => LGraph.mem x keep) (node_ids g).
Proof.
  unfold node_ids, induced_sub. simpl. induction (gnodes g) as [|[k a] r IH]; simpl; [reflexivity|].
  destruct (LGraph.mem k keep); simpl; congruence.
Qed.

Lemma filter_mem_len (ids S : list N) : NoDup ids -> NoDup S -> incl S ids -> length (filter (fun x => LGraph.mem x S) ids) = length S.
Proof.
  intros Hi Hs Hin. apply Nat.le_antisymm.
  - apply NoDup_incl_length; [apply NoDup_filter; exact Hi|]. intros x I. apply filter_In in I. apply LGraph.mem_spec. tauto.
  - apply NoDup_incl_length; [exact Hs|]. intros x I. apply filter_In. split; [apply Hin; exact I | apply LGraph.mem_spec; exact I].
Qed.

Lemma induced_n_nodes (g : graph) S : gwf g -> NoDup S -> incl S (node_ids g) -> n_nodes (induced_sub g S) = length S.
Proof. intros W Hs Hin. rewrite n_nodes_ids, induced_ids. apply filter_mem_len; auto. apply gwf_nodup. exact W. Qed.

Lemma first_some_spec {X Y} (f : X -> option Y) l :
  match first_some f l with
  | Some y => exists x, In x l /\ f x = Some y
  | None => forall x, In x l -> f x = None
  end.
Proof.
  induction l as [|x r IH]; simpl; [intros y []|]. destruct (f x) as [z|] eqn:E; [exists x; auto|].
  destruct (first_some f r); [destruct IH as (x' & I & E'); exists x'; auto | intros y [<-|I]; auto].
Qed.

Section MCCS.
Variable vf2b : bool -> (attrs -> attrs -> bool) -> (attrs -> attrs -> bool) -> graph -> graph -> bool.
Hypothesis VB : vf2b_contract vf2b.
Variables nm em : attrs -> attrs -> bool.
Variables larger smaller : graph.
Hypothesis WL : gwf larger.
Hypothesis WS : gwf smaller.

(** a node subset is good: its induced subgraph is admissible (at most one node, or connected) and occurs (induced) in the larger graph *)
Definition good (S : list N) : Prop :=
  admissible_spec (induced_sub smaller S) /\ contained true nm em larger (induced_sub smaller S).

Lemma candidate_spec S r : candidate vf2b nm em larger smaller S = Some r <-> r = induced_sub smaller S /\ good S.
Proof.
  unfold candidate, good. pose proof (wf_induced S WS) as WC. fold (gwf (induced_sub smaller S)) in WC.
  pose proof (admissible_iff _ WC) as A. pose proof (VB true nm em larger (induced_sub smaller S) WL WC) as B.
  destruct (admissible (induced_sub smaller S)); [destruct (vf2b true nm em larger (induced_sub smaller S))|].
  - split; [intros [= <-]|intros (-> & _)]; auto. split; auto. split; [apply A | apply B]; reflexivity.
  - split; [discriminate|]. intros (_ & _ & C). apply B in C. discriminate.
  - split; [discriminate|]. intros (_ & C & _). apply A in C. discriminate.
Qed.

Lemma mccs_down_spec k :
  match mccs_down vf2b nm em larger smaller k with
  | Some r => exists j T, 1 <= j <= k /\ In T (combs j (node_ids smaller)) /\ r = induced_sub smaller T /\ good T /\
                          (forall j' T', j < j' <= k -> In T' (combs j' (node_ids smaller)) -> ~ good T')
  | None => forall j T, 1 <= j <= k -> In T (combs j (node_ids smaller)) -> ~ good T
  end.
Proof.
  induction k as [|k IH]; simpl; [intros j T Hj; lia|].
  pose proof (first_some_spec (candidate vf2b nm em larger smaller) (combs (S k) (node_ids smaller))) as F.
  destruct (first_some (candidate vf2b nm em larger smaller) (combs (S k) (node_ids smaller))) as [r|].
  - destruct F as (T0 & I0 & C0). apply candidate_spec in C0. destruct C0 as (-> & G0).
    exists (S k), T0. split; [lia|]. split; [exact I0|]. split; [reflexivity|]. split; [exact G0|]. intros j' T' Hj. lia.
  - assert (Hk : forall T, In T (combs (S k) (node_ids smaller)) -> ~ good T).
    { intros T I G. specialize (F T I). rewrite (proj2 (candidate_spec T _) (conj eq_refl G)) in F. discriminate. }
    destruct (mccs_down vf2b nm em larger smaller k) as [r|].
    + destruct IH as (j & T & Hj & I & E & G & Mx). exists j, T. split; [lia|]. split; [exact I|]. split; [exact E|]. split; [exact G|].
      intros j' T' Hj' I'. destruct (Nat.eq_dec j' (S k)) as [->|Hne]; [apply Hk; exact I'|]. apply (Mx j' T'); [lia | exact I'].
    + intros j T Hj I. destruct (Nat.eq_dec j (S k)) as [->|Hne]; [apply Hk; exact I|]. apply (IH j T); [lia | exact I].
Qed.

(** a good duplicate-free node subset is represented by a good one among the enumerated combinations of its size *)
Lemma subset_in_combs S' : NoDup S' -> incl S' (node_ids smaller) -> good S' ->
  length S' <= n_nodes smaller /\ exists F, In F (combs (length S') (node_ids smaller)) /\ good F.
Proof.
  intros Hnd Hin G. split; [rewrite n_nodes_ids; apply NoDup_incl_length; auto|].
  exists (filter (fun x => LGraph.mem x S') (node_ids smaller)). split.
  - rewrite <- (filter_mem_len (node_ids smaller) S' (gwf_nodup _ WS) Hnd Hin) at 1. apply combs_complete.
  - unfold good. rewrite (induced_ext smaller _ S'); [exact G|].
    intros x. rewrite filter_In, LGraph.mem_spec. split; [tauto|]. intros I. split; auto.
Qed.

Lemma contained_empty H : contained true nm em H (LG [] []).
Proof.
  exists (fun u => u). split; [intros u []|]. split; [intros u v []|intros u v []].
Qed.

Definition mccs_of : graph :=
  match mccs_down vf2b nm em larger smaller (n_nodes smaller) with Some g => g | None => LG [] [] end.

Theorem mccs_of_spec :
  (exists S, NoDup S /\ incl S (node_ids smaller) /\ mccs_of = induced_sub smaller S /\ n_nodes mccs_of = length S) /\
  admissible_spec mccs_of /\
  contained true nm em larger mccs_of /\
  (forall S', NoDup S' -> incl S' (node_ids smaller) -> good S' -> length S' <= n_nodes mccs_of).
Proof.
  unfold mccs_of. pose proof (mccs_down_spec (n_nodes smaller)) as Sp.
  destruct (mccs_down vf2b nm em larger smaller (n_nodes smaller)) as [r|].
  - destruct Sp as (j & S & Hj & I & -> & (Ga & Gc) & Mx).
    destruct (combs_sound (node_ids smaller) j S I) as (Lj & Hin & Hnd). specialize (Hnd (gwf_nodup _ WS)).
    assert (En : n_nodes (induced_sub smaller S) = length S) by (apply induced_n_nodes; auto).
    split; [exists S; auto|]. split; [exact Ga|]. split; [exact Gc|].
    intros S' Hnd' Hin' G'. rewrite En, Lj. destruct (Nat.le_gt_cases (length S') j) as [Hle|Hgt]; [exact Hle|]. exfalso.
    destruct (subset_in_combs S' Hnd' Hin' G') as (Hl & F & IF & GF). apply (Mx (length S') F); auto.
  - split; [exists []; split; [constructor|]; split; [intros x []|]; split; [symmetry; apply induced_nil | reflexivity]|].
    split; [left; unfold n_nodes; simpl; lia|]. split; [apply contained_empty|].
    intros S' Hnd' Hin' G'. destruct S' as [|x S']; [simpl; lia|]. exfalso.
    destruct (subset_in_combs (x :: S') Hnd' Hin' G') as (Hl & F & IF & GF). apply (Sp (length (x :: S')) F); auto. simpl in *. lia.
Qed.
End MCCS.

Lemma mccs_unfold vf2b names defaults eattr done g1 g2 :
  mccs vf2b names defaults eattr done g1 g2 =
  mccs_of vf2b (mccs_nm names defaults) (mccs_em eattr done) (snd (mccs_pick g1 g2)) (fst (mccs_pick g1 g2)).
Proof. unfold mccs, mccs_of. destruct (mccs_pick g1 g2) as [s l]. reflexivity. Qed.

Lemma mccs_pick_spec g1 g2 :
  n_nodes (fst (mccs_pick g1 g2)) <= n_nodes (snd (mccs_pick g1 g2)) /\
  ((fst (mccs_pick g1 g2) = g1 /\ snd (mccs_pick g1 g2) = g2) \/ (fst (mccs_pick g1 g2) = g2 /\ snd (mccs_pick g1 g2) = g1 /\ n_nodes g2 < n_nodes g1)).
Proof.
  unfold mccs_pick. destruct (n_nodes g1 <=? n_nodes g2) eqn:E; simpl.
  - apply Nat.leb_le in E. auto.
  - apply Nat.leb_gt in E. split; [lia|]. right. auto.
Qed.

(** maximum_connected_common_subgraph *)
Theorem mccs_spec vf2b : vf2b_contract vf2b ->
  forall names defaults eattr done g1 g2, gwf g1 -> gwf g2 ->
  let small := fst (mccs_pick g1 g2) in let large := snd (mccs_pick g1 g2) in
  let nm := mccs_nm names defaults in let em := mccs_em eattr done in
  let r := mccs vf2b names defaults eattr done g1 g2 in
  (exists S, NoDup S /\ incl S (node_ids small) /\ r = induced_sub small S /\ n_nodes r = length S) /\
  (n_nodes r <= 1 \/ all_connected r) /\
  contained true nm em large r /\
  (forall S', NoDup S' -> incl S' (node_ids small) ->
     (n_nodes (induced_sub small S') <= 1 \/ all_connected (induced_sub small S')) ->
     contained true nm em large (induced_sub small S') -> length S' <= n_nodes r).
Proof.
  intros VB names defaults eattr done g1 g2 W1 W2 small large nm em r. unfold r. rewrite mccs_unfold. fold small large nm em.
  assert (WS : gwf small /\ gwf large).
  { unfold small, large. destruct (mccs_pick_spec g1 g2) as (_ & [(-> & ->)|(-> & -> & _)]); auto. }
  destruct WS as (WS & WL). destruct (mccs_of_spec vf2b VB nm em large small WL WS) as (A & B & C & D).
  split; [exact A|]. split; [exact B|]. split; [exact C|]. intros S' Hnd Hin Ha Hc. apply D; auto. split; auto.
Qed.

(** heuristics_MCCS: the empty list raises, one graph is returned as it is, two graphs give their mccs; with more graphs the result
    is a left fold that stops at the first empty intermediate result *)
Theorem hmccs_spec vf2b names defaults eattr done :
  hmccs vf2b names defaults eattr done [] = None /\
  (forall g, hmccs vf2b names defaults eattr done [g] = Some g) /\
  (forall g1 g2, hmccs vf2b names defaults eattr done [g1; g2] = Some (mccs vf2b names defaults eattr done g1 g2)) /\
  (forall g1 g2 g3 r, hmccs vf2b names defaults eattr done (g1 :: g2 :: g3 :: r) =
     let m := mccs vf2b names defaults eattr done g1 g2 in
     if n_nodes m =? 0 then Some m else hmccs vf2b names defaults eattr done (m :: g3 :: r)).
Proof.
  repeat split. intros g1 g2 g3 r. simpl. destruct (n_nodes (mccs vf2b names defaults eattr done g1 g2) =? 0); reflexivity.
Qed.

(** C-O-C (ids 5,6,7) and C-O (ids 1,2), element + charge, edge attribute "order" (key 4, default code 5 = order 1):
    the smaller graph is C-O, all of it occurs in C-O-C: the result is C-O itself *)
Definition mccsEx : graph := mccs has_mono [1; 2]%N [9; 3]%N 4 5 gCOC gCO.
Example ex_mccs : mccsEx = gCO /\ contained true (mccs_nm [1; 2]%N [9; 3]%N) (mccs_em 4 5) gCOC mccsEx /\ all_connected mccsEx.
Proof.
  assert (E : mccsEx = gCO) by (vm_compute; reflexivity). split; [exact E|].
  destruct (mccs_spec has_mono has_mono_contract [1; 2]%N [9; 3]%N 4%N 5%N gCOC gCO wf_gCOC wf_gCO) as (_ & A & C & _).
  fold mccsEx in A, C. split; [exact C|]. destruct A as [A|A]; [|exact A]. rewrite E in A. vm_compute in A. lia.
Qed.

(** C . O (not bonded) against C-O: no two-node subset is admissible (not connected), a single C is: one node comes back;
    and the maximality clause: the bonded pair {1, 2} of C-O is connected but does not occur in C . O, consistent with size 1 *)
Definition gCdotO : graph := LG [(3, aC); (4, aO)]%N [].
Lemma wf_gCdotO : gwf gCdotO. Proof. wf_small. Qed.
Example ex_mccs_disconnected :
  mccs has_mono [1; 2]%N [9; 3]%N 4 5 gCdotO gCO = LG [(3, aC)]%N [] /\ connected gCdotO = false /\ ~ all_connected gCdotO.
Proof.
  split; [vm_compute; reflexivity|]. split; [vm_compute; reflexivity|].
  intros A. apply (connected_spec gCdotO wf_gCdotO) in A; [vm_compute in A; discriminate | discriminate].
Qed.

(** nothing in common: C-O against a lone N (element code 7): the empty graph; heuristics_MCCS stops there *)
Definition gN : graph := LG [(1, [(1, 7); (2, 3)])]%N [].
Example ex_mccs_empty :
  mccs has_mono [1; 2]%N [9; 3]%N 4 5 gCO gN = LG [] [] /\
  hmccs has_mono [1; 2]%N [9; 3]%N 4 5 [gCO; gN; gCO] = Some (LG [] []) /\
  hmccs has_mono [1; 2]%N [9; 3]%N 4 5 [gCOC; gCO; gOC] = Some gCO /\ hmccs has_mono [1; 2]%N [9; 3]%N 4 5 [] = None.
Proof. repeat apply conj; vm_compute; reflexivity. Qed.

(** helpers about the subgraph induced by a node list S that lies inside the graph *)
Lemma induced_in (g : graph) S u : incl S (node_ids g) -> (In u (node_ids (induced_sub g S)) <-> In u S).
Proof. intros Hin. rewrite node_ids_induced. split; [tauto|]. intros I. split; auto. Qed.

Lemma induced_nlabel (g : graph) S u : In u S -> nlabel (induced_sub g S) u = nlabel g u.
Proof.
  intros I. unfold nlabel. rewrite label_induced. apply LGraph.mem_spec in I. rewrite I. reflexivity.
Qed.

Lemma induced_adj_in (g : graph) S u v : gwf g -> In u S -> In v S -> LGraph.adj (induced_sub g S) u v = LGraph.adj g u v.
Proof.
  intros W Iu Iv. rewrite (adj_induced S u v W). apply LGraph.mem_spec in Iu. apply LGraph.mem_spec in Iv. rewrite Iu, Iv. reflexivity.
Qed.

(** an embedding whose image lies in K is an embedding into the subgraph induced by K, and conversely *)
Lemma emb_induced_host ind nm em (H P : graph) f K : gwf H -> (forall u, In u (node_ids P) -> In (f u) K) ->
  (emb ind nm em (induced_sub H K) P f <-> emb ind nm em H P f).
Proof.
  intros W Hk.
  assert (L : forall u, In u (node_ids P) -> nlabel (induced_sub H K) (f u) = nlabel H (f u)) by (intros; apply induced_nlabel; auto).
  assert (A : forall u v, In u (node_ids P) -> In v (node_ids P) -> LGraph.adj (induced_sub H K) (f u) (f v) = LGraph.adj H (f u) (f v))
    by (intros; apply induced_adj_in; auto).
  split; intros (E1 & E2 & E3); (split; [|split; [exact E2|]]).
  - intros u Iu. destruct (E1 u Iu) as (Ih & Hn). rewrite L in Hn; auto. split; auto. apply node_ids_induced in Ih. tauto.
  - intros u v Iu Iv Hne. rewrite <- A; auto. apply E3; auto.
  - intros u Iu. destruct (E1 u Iu) as (Ih & Hn). rewrite L; auto. split; auto. apply node_ids_induced. auto.
  - intros u v Iu Iv Hne. rewrite A; auto. apply E3; auto.
Qed.

(** an embedding carries paths of the pattern to paths of the host *)
Lemma emb_reach ind nm em (H P : graph) f x z : gwf P -> emb ind nm em H P f -> In x (node_ids P) -> reach P x z ->
  In z (node_ids P) /\ reach H (f x) (f z).
Proof.
  intros WP (_ & _ & E3) Ix R. induction R as [z [<-|[]]|u v _ IH I]; [split; [exact Ix | apply reach_refl]|].
  destruct IH as (Iu & Ru). destruct (nbrs_wf P u v WP I) as (_ & Iv & Hne & A). split; [exact Iv|].
  eapply conn_step; [exact Ru|]. apply adj_nbrs. specialize (E3 u v Iu Iv Hne).
  destruct (LGraph.adj P u v); [|congruence]. destruct (LGraph.adj H (f u) (f v)); [discriminate|contradiction].
Qed.

(** the image S' of an embedding of [induced_sub smaller S] into [larger] induces a subgraph of [larger] isomorphic to it: it is
    admissible when the original is, and (symmetric comparators) occurs in [smaller] *)
Section Transfer.
Variables nm em : attrs -> attrs -> bool.
Hypothesis Sn : sym2 nm.
Hypothesis Se : sym2 em.
Variables larger smaller : graph.
Hypothesis WL : gwf larger.
Hypothesis WS : gwf smaller.
Variable S : list N.
Hypothesis HndS : NoDup S.
Hypothesis HinS : incl S (node_ids smaller).
Variable f : N -> N.
Hypothesis He : emb true nm em larger (induced_sub smaller S) f.

Let r := induced_sub smaller S.
Let S' := map f S.
Let r' := induced_sub larger S'.
Let g := finv f S.

Lemma tr_inj u v : In u S -> In v S -> f u = f v -> u = v.
Proof. intros Iu Iv. destruct He as (_ & E2 & _). apply E2; apply (induced_in smaller S); auto. Qed.

Lemma tr_S'_nodup : NoDup S'.
Proof. apply NoDup_map_inj_in; auto. intros a b Ia Ib. apply tr_inj; auto. Qed.

Lemma tr_S'_incl : incl S' (node_ids larger).
Proof.
  intros h Ih. apply in_map_iff in Ih. destruct Ih as (u & <- & Iu). destruct He as (E1 & _). apply E1, (induced_in smaller S); auto.
Qed.

Lemma tr_g_f u : In u S -> g (f u) = u.
Proof. intros Iu. apply finv_l; auto. intros a b Ia Ib. apply tr_inj; auto. Qed.

Lemma tr_iso : iso_map nm em r' r f.
Proof.
  apply emb_onto; [apply wf_induced, WL | apply wf_induced, WS | |].
  - unfold r', r. rewrite (induced_n_nodes larger S' WL tr_S'_nodup tr_S'_incl), (induced_n_nodes smaller S WS HndS HinS). apply map_length.
  - apply emb_induced_host; auto. intros u Iu. apply in_map, (induced_in smaller S); auto.
Qed.

Lemma tr_contained : contained true nm em smaller r'.
Proof.
  destruct (iso_exists_sym nm em r' r Sn Se (ex_intro _ f tr_iso)) as (g' & Hg & _). exists g'.
  apply (emb_induced_host true nm em smaller r' g' S WS); [|exact Hg].
  intros v Iv. apply (induced_in smaller S); auto. apply Hg. exact Iv.
Qed.

Lemma tr_admissible : admissible_spec r -> admissible_spec r'.
Proof.
  destruct tr_iso as (Hf & On). intros [A|A]; [left; rewrite (iso_sizes nm em r' r f (wf_induced _ WL) (wf_induced _ WS) (conj Hf On)); exact A|].
  right. intros x y Ix Iy. destruct (On x Ix) as (u & Iu & <-). destruct (On y Iy) as (v & Iv & <-).
  apply (emb_reach _ _ _ r' r f u v (wf_induced _ WS) Hf Iu). apply A; auto.
Qed.
End Transfer.

Lemma mccs_pick_unequal g1 g2 : n_nodes g1 <> n_nodes g2 -> mccs_pick g1 g2 = mccs_pick g2 g1.
Proof.
  intros Hne. unfold mccs_pick. destruct (n_nodes g1 <=? n_nodes g2) eqn:A, (n_nodes g2 <=? n_nodes g1) eqn:B; auto.
  - apply Nat.leb_le in A. apply Nat.leb_le in B. lia.
  - apply Nat.leb_gt in A. apply Nat.leb_gt in B. lia.
Qed.

(** maximum_connected_common_subgraph(g1, g2) and (g2, g1) have the same number of nodes (for unequal orders they are the same graph)
    whenever the matchers are symmetric — which the equality matchers of the code are *)
Theorem mccs_of_size_le vf2b : vf2b_contract vf2b -> forall nm em, sym2 nm -> sym2 em ->
  forall ga gb, gwf ga -> gwf gb -> n_nodes (mccs_of vf2b nm em gb ga) <= n_nodes (mccs_of vf2b nm em ga gb).
Proof.
  intros VB nm em Sn Se ga gb Wa Wb.
  destruct (mccs_of_spec vf2b VB nm em gb ga Wb Wa) as ((S & Hnd & Hin & Er & En) & Adm & (f & He) & _).
  destruct (mccs_of_spec vf2b VB nm em ga gb Wa Wb) as (_ & _ & _ & Mx).
  rewrite Er in He, Adm. rewrite En, <- (map_length f S).
  apply Mx.
  - apply (tr_S'_nodup nm em gb ga S Hnd Hin f He).
  - apply (tr_S'_incl nm em gb ga S Hin f He).
  - split; [apply (tr_admissible nm em gb ga Wb Wa S Hnd Hin f He Adm) | apply (tr_contained nm em Sn Se gb ga Wb Wa S Hnd Hin f He)].
Qed.

Lemma mccs_nm_sym names defaults : sym2 (mccs_nm names defaults).
Proof. apply nm_sub_sym. Qed.
Lemma mccs_em_sym eattr done : sym2 (mccs_em eattr done).
Proof. apply eqd_sym. Qed.

Theorem mccs_size_symmetric vf2b : vf2b_contract vf2b ->
  forall names defaults eattr done g1 g2, gwf g1 -> gwf g2 ->
    n_nodes (mccs vf2b names defaults eattr done g1 g2) = n_nodes (mccs vf2b names defaults eattr done g2 g1) /\
    (n_nodes g1 <> n_nodes g2 -> mccs vf2b names defaults eattr done g1 g2 = mccs vf2b names defaults eattr done g2 g1).
Proof.
  intros VB names defaults eattr done g1 g2 W1 W2.
  assert (U : n_nodes g1 <> n_nodes g2 -> mccs vf2b names defaults eattr done g1 g2 = mccs vf2b names defaults eattr done g2 g1).
  { intros Hne. rewrite !mccs_unfold, (mccs_pick_unequal g1 g2 Hne). reflexivity. }
  split; [|exact U]. destruct (Nat.eq_dec (n_nodes g1) (n_nodes g2)) as [E|Hne]; [|rewrite (U Hne); reflexivity].
  rewrite !mccs_unfold. unfold mccs_pick. rewrite E, Nat.leb_refl. simpl.
  apply Nat.le_antisymm; apply (mccs_of_size_le vf2b VB); auto using mccs_nm_sym, mccs_em_sym.
Qed.

(** C-O-C against C-O and C-O against C-O-C: the same graph; C-O against C-[O-] (equal orders, element + charge): one node (the C)
    either way — the node comes from the first argument, so the graphs differ while the sizes agree *)
Example ex_mccs_symmetric :
  mccs has_mono [1; 2]%N [9; 3]%N 4 5 gCO gCOC = mccsEx /\
  n_nodes (mccs has_mono [1; 2]%N [9; 3]%N 4 5 gCO gCOm) = 1%nat /\ n_nodes (mccs has_mono [1; 2]%N [9; 3]%N 4 5 gCOm gCO) = 1%nat /\
  mccs has_mono [1; 2]%N [9; 3]%N 4 5 gCO gCOm <> mccs has_mono [1; 2]%N [9; 3]%N 4 5 gCOm gCO.
Proof.
  split.
  - symmetry. apply (mccs_size_symmetric has_mono has_mono_contract [1; 2]%N [9; 3]%N 4%N 5%N gCOC gCO wf_gCOC wf_gCO). vm_compute. lia.
  - split; [vm_compute; reflexivity|]. split.
    + rewrite <- (proj1 (mccs_size_symmetric has_mono has_mono_contract [1; 2]%N [9; 3]%N 4%N 5%N gCO gCOm wf_gCO wf_gCOm)). vm_compute. reflexivity.
    + vm_compute. discriminate.
Qed.

(** [tries_in] (the count the correspondence compares with the number of GraphMatcher objects the implementation builds) walks the
    candidate list exactly like [first_some candidate]: it reports success iff a candidate is found, never counts more than the list
    is long, and counts at least one construction whenever it reports success *)
Lemma tries_in_spec vf2b nm em larger smaller l :
  (snd (tries_in vf2b nm em larger smaller l) = true <-> first_some (candidate vf2b nm em larger smaller) l <> None) /\
  fst (tries_in vf2b nm em larger smaller l) <= length l /\
  (snd (tries_in vf2b nm em larger smaller l) = true -> 1 <= fst (tries_in vf2b nm em larger smaller l)).
Proof.
  induction l as [|x r (IH1 & IH2 & IH3)]; simpl; [split; [split; [discriminate|congruence]|split; [lia|discriminate]]|].
  unfold candidate at 1. destruct (admissible (induced_sub smaller x)).
  - destruct (vf2b true nm em larger (induced_sub smaller x)); simpl.
    + split; [split; [discriminate | reflexivity]|]. split; [lia | lia].
    + destruct (tries_in vf2b nm em larger smaller r) as [n b]. simpl in *. split; [exact IH1|]. split; [lia | intros _; lia].
  - split; [exact IH1|]. split; [lia | exact IH3].
Qed.
Example ex_tries : mccs_tries has_mono [1; 2]%N [9; 3]%N 4 5 gCOC gCO = 1%nat /\ mccs_tries has_mono [1; 2]%N [9; 3]%N 4 5 gCdotO gCO = 1%nat /\
                   mccs_tries has_mono [1; 2]%N [9; 3]%N 4 5 gCO gCOm = 2%nat.
Proof. repeat apply conj; vm_compute; reflexivity. Qed.
