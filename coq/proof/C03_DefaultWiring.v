(** C03 — clause (c) for the hydrogens, end to end in the default mode: every hydrogen that _explicit_h re-materialises
    moves between the images of two template atoms that belong to ONE hydrogen-transfer group of the TEMPLATE (atoms
    linked through removed template hydrogens they are bonded to). *)
From Coq Require Import List NArith ZArith Bool Lia.
From SK Require Import lib.Tok lib.LGraph model.C03_Model proof.C03_Proof proof.C03_Glue proof.C03_Backward proof.C03_Skeleton
                       proof.C03_Wiring proof.C03_PairIds proof.C03_ExplicitH proof.C03_ExplicitShape.
Import ListNotations.
Local Open Scope Z_scope.

Section Chain.
  Variables (tpl rc : its) (l r : molg) (host : hostg) (m : mapping) (T : its).
  Hypothesis Hnd : nodupb (node_ids tpl) = true.
  Hypothesis Hnone : forall k n, In (k, n) (gnodes tpl) -> i_hp n = None.
  Hypothesis Hs : synrule tpl true = Some (rc, l, r).
  Hypothesis Hwh : wf_hostb host = true.
  Hypothesis Hwr : wf_rcb rc = true.
  Hypothesis Hm : match_rcb host rc m = true.
  Hypothesis Hg : glue host rc m = Some T.

  Lemma group_chain a c : same_group T a c -> forall x, mget m x = Some a -> exists y, mget m y = Some c /\ tpl_group tpl x y.
  Proof.
    pose proof (match_rcb_sound host rc m (wf_rc_nodup rc Hwr) Hm) as MO.
    induction 1 as [a|a b c Hsp Hgr IH]; intros x Ex; [exists x; split; [exact Ex|constructor]|].
    destruct (default_share_pair_template tpl rc l r host m T a b Hnd Hnone Hs Hwh Hwr Hm Hg Hsp) as (x1 & y1 & h & E1 & E2 & Hh & N1 & N2).
    assert (x1 = x) by (exact (mget_inj m x1 x a (mo_vals _ _ _ MO) E1 Ex)). subst x1.
    destruct (IH y1 E2) as (y & Ey & Gy). exists y. split; [exact Ey|]. eapply tg_step; [|exact Gy]. exists h. auto.
  Qed.

  Theorem default_migrations_in_template_groups T' ms : explicit_h T = Some (T', ms) ->
    forall sd, In sd ms ->
      exists x y, mget m x = Some (fst sd) /\ mget m y = Some (snd sd) /\ tpl_group tpl x y /\
                  0 < dl_of T (fst sd) /\ dl_of T (snd sd) < 0.
  Proof.
    intros He sd I.
    destruct (explicit_h_wiring T T' ms (glued_nodup host rc m T Hwh Hwr Hm Hg) He) as [_ W].
    destruct (W sd I) as (G & D1 & D2).
    inversion G as [a Ea Eb|a b c Hsp Hgr Ea Ec].
    - exfalso. assert (Eq : fst sd = snd sd) by congruence. rewrite Eq in D1. lia.
    - destruct (default_share_pair_template tpl rc l r host m T _ b Hnd Hnone Hs Hwh Hwr Hm Hg Hsp) as (x1 & y1 & h & E1 & E2 & _).
      destruct (group_chain (fst sd) (snd sd) G x1 E1) as (y & Ey & Gy). exists x1, y. auto.
  Qed.
End Chain.
