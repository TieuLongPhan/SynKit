(** C04 — the identity is among the raw matches of the search engine: the reactor's node / edge predicates
    ([match_okb], model/C03_Model.v) translated into C06's monomorphism specification, then C06's theorem for the
    exhaustive strategy (proof/C06_All.v) under its VF2 contract. *)
From Coq Require Import List NArith ZArith Bool Lia Permutation.
From SK Require Import lib.LGraph model.C06_Model lib.C06_Spec proof.C06_All model.C03_Model model.C04_Model model.C04_Reactor proof.C03_Proof proof.C03_Backward
                       proof.C04_Glue proof.C04_Proof.
Import ListNotations.
Local Open Scope Z_scope.

(** [chcode] / [tr_edges] / [tr_host] / [tr_pat]: model/C04_Reactor.v (node_attrs = ["element", "charge"], edge_attrs = ["order"] as the
    reactor passes them; any injective coding of charges / orders into N would do) *)
Lemma chcode_inj a b : chcode a = chcode b -> a = b.
Proof. destruct a, b; simpl; intros E; try discriminate; try reflexivity; inversion E; reflexivity. Qed.

Lemma leqb_refl l : leqb l l = true.
Proof. induction l as [|x r IH]; simpl; [reflexivity|]. rewrite N.eqb_refl. exact IH. Qed.
Lemma tr_host_ids g : node_ids (tr_host g) = node_ids g.
Proof. unfold node_ids, tr_host; simpl. rewrite map_map. reflexivity. Qed.
Lemma tr_pat_ids g : node_ids (tr_pat g) = node_ids g.
Proof. unfold node_ids, tr_pat; simpl. rewrite map_map. reflexivity. Qed.
Lemma tr_adj (es : list (N * N * Z)) a b : find_edge a b (tr_edges es) = option_map (fun o => [Z.to_N o]) (find_edge a b es).
Proof. exact (find_edge_map (fun o => [Z.to_N o]) es a b). Qed.

Lemma label_tr_host g n : label (tr_host g) n = option_map (fun a => ([a_el a; chcode (a_ch a)], Z.to_N (a_hc a))) (label g n).
Proof. unfold label, tr_host; simpl. exact (assoc_map (fun a : nattr => ([a_el a; chcode (a_ch a)], Z.to_N (a_hc a))) (gnodes g) n). Qed.
Lemma label_tr_pat g n : label (tr_pat g) n = option_map (fun a => ([m_el a; chcode (m_ch a)], Z.to_N (m_hc a))) (label g n).
Proof. unfold label, tr_pat; simpl. exact (assoc_map (fun a : mnode => ([m_el a; chcode (m_ch a)], Z.to_N (m_hc a))) (gnodes g) n). Qed.

Lemma counts_nonneg (l : molg) : forallb (fun p => 0 <=? m_hc (snd p)) (gnodes l) = true ->
  forall n a, In (n, a) (gnodes l) -> 0 <= m_hc a.
Proof. intros H n a I. apply Z.leb_le. exact (forallb_elim _ _ _ H I). Qed.

(** a mapping the reactor's predicates accept is a monomorphism in C06's sense *)
Theorem match_is_mono (host : hostg) (pat : molg) (m : C03_Model.mapping) :
  NoDup (node_ids pat) -> (forall n a, In (n, a) (gnodes pat) -> 0 <= m_hc a) ->
  match_okb host pat m = true -> is_mono (tr_host host) (tr_pat pat) m.
Proof.
  intros Hnd Hhc H. unfold match_okb in H.
  apply andb_prop in H. destruct H as [H H5]. apply andb_prop in H. destruct H as [H H4].
  apply andb_prop in H. destruct H as [H H3]. apply andb_prop in H. destruct H as [H1 H2].
  apply nodupb_NoDup in H1. apply nodupb_NoDup in H2. apply Nat.eqb_eq in H3.
  (* every pattern atom has an image *)
  assert (Himg : forall n a, In (n, a) (gnodes pat) -> exists h x, mget m n = Some h /\ label host h = Some x /\
             a_el x = m_el a /\ a_ch x = m_ch a /\ m_hc a <= a_hc x).
  { intros n a I. eapply forallb_elim in H4; [|exact I]. unfold node_okb in H4. simpl in H4. destruct (mget m n) as [h|]; [|discriminate].
    destruct (label host h) as [x|] eqn:Ex; [|discriminate]. apply andb_prop in H4. destruct H4 as [H4 Hc]. apply andb_prop in H4. destruct H4 as [Ha Hb].
    exists h, x. split; [reflexivity|]. split; [exact Ex|]. split; [apply N.eqb_eq; exact Ha|]. split; [apply Z.eqb_eq; exact Hb|apply Z.leb_le; exact Hc]. }
  assert (Hkeys : forall p, In p (map fst m) <-> In p (node_ids pat)).
  { assert (Hinc : incl (node_ids pat) (map fst m)).
    { intros p I. unfold node_ids in I. apply in_map_iff in I. destruct I as ([k a] & E & I). simpl in E; subst.
      destruct (Himg _ _ I) as (h & _ & Eh & _). unfold mget in Eh. apply assoc_in in Eh. change p with (fst (p, h)). apply in_map. exact Eh. }
    intros p. split; [|apply Hinc].
    apply (NoDup_length_incl Hnd); [|exact Hinc]. unfold node_ids. rewrite !map_length. lia. }
  unfold is_mono, is_mono_on. rewrite tr_host_ids, tr_pat_ids.
  split; [exact H1|]. split; [exact Hkeys|]. split; [exact H2|]. split.
  - intros p h I.
    assert (Ep : mget m p = Some h) by (unfold mget; apply assoc_nodup_in; assumption).
    assert (Ip : In p (node_ids pat)) by (apply Hkeys; change p with (fst (p, h)); apply in_map; exact I).
    destruct (in_ids_label pat p Ip) as [a Ea]. destruct (Himg p a (assoc_in p (gnodes pat) Ea)) as (h' & x & Eh & Ex & E1 & E2 & E3).
    rewrite Ep in Eh. inversion Eh; subst h'. split; [exact (label_some_in host h x Ex)|].
    unfold nm, lab. rewrite label_tr_host, label_tr_pat, Ex, Ea. simpl.
    rewrite E1, E2, !N.eqb_refl. simpl. apply N.leb_le. pose proof (Hhc p a (assoc_in p (gnodes pat) Ea)). lia.
  - intros p h p' h' b I I' Eb. unfold LGraph.adj, tr_pat in Eb; simpl in Eb. rewrite tr_adj in Eb.
    destruct (find_edge p p' (gedges pat)) as [o|] eqn:Eo; [|discriminate]. simpl in Eb. inversion Eb; subst b.
    apply find_edge_in in Eo. destruct Eo as (u & v & Ie & Hp). eapply forallb_elim in H5; [|exact Ie]. unfold edge_okb in H5.
    destruct (mget m u) as [hu|] eqn:Eu; [|discriminate]. destruct (mget m v) as [hv|] eqn:Ev; [|discriminate].
    destruct (LGraph.adj host hu hv) as [o'|] eqn:Ea; [|discriminate]. apply Z.eqb_eq in H5. subst o'.
    assert (Eph : mget m p = Some h) by (unfold mget; apply assoc_nodup_in; assumption).
    assert (Eph' : mget m p' = Some h') by (unfold mget; apply assoc_nodup_in; assumption).
    exists [Z.to_N o]. split; [|apply leqb_refl].
    unfold LGraph.adj, tr_host; simpl. rewrite tr_adj.
    assert (Hq : peq hu hv h h' = true).
    { destruct (peq_elim _ _ _ _ Hp) as [[-> ->]|[-> ->]].
      - rewrite Eph in Eu. rewrite Eph' in Ev. inversion Eu; inversion Ev; subst. apply peq_refl.
      - rewrite Eph' in Eu. rewrite Eph in Ev. inversion Eu; inversion Ev; subst. rewrite peq_sym1. apply peq_refl. }
    unfold LGraph.adj in Ea. rewrite <- (find_edge_peq (gedges host) hu hv h h' Hq), Ea. reflexivity.
Qed.

(** hence, under the VF2 contract of C06 for the one enumeration call the exhaustive strategy makes and a threshold that
    is not exceeded, every mapping the reactor's predicates accept is (as a set of pairs) among the raw matches *)
Theorem accepted_match_among_raw (enum : list N -> list N -> list C06_Model.mapping) (T : N) (strict : bool)
    (host : hostg) (pat : molg) (m : C03_Model.mapping) :
  NoDup (node_ids pat) -> (forall n a, In (n, a) (gnodes pat) -> 0 <= m_hc a) ->
  match_okb host pat m = true ->
  vf2_contract enum (tr_host host) (tr_pat pat) (node_ids (tr_host host)) (node_ids (tr_pat pat)) ->
  (lenN (enum (node_ids (tr_host host)) (node_ids (tr_pat pat))) <= T)%N ->
  exists m', In m' (C06_Model.find enum (Cfg 0 0 T strict false) (tr_host host) (tr_pat pat)) /\ Permutation m m'.
Proof.
  intros Hnd Hhc Hm Hc Hle.
  destruct (all_exact enum T strict (tr_host host) (tr_pat pat) Hc Hle) as (_ & Hcomp & _).
  exact (Hcomp m (match_is_mono host pat m Hnd Hhc Hm)).
Qed.

(** the identity match of the reaction's own template (implicit mode) is among the raw matches of strategy ALL *)
Theorem identity_among_raw (core invert : bool) (G H : hostg) (enum : list N -> list N -> list C06_Model.mapping) (T : N) (strict : bool)
    (rc : its) (l r : molg) :
  pair_wfb G H = true -> no_explicit_H G = true ->
  rule_of core invert G H = Some (rc, l, r) ->
  forallb (fun p => 0 <=? m_hc (snd p)) (gnodes (pattern_of l)) = true ->
  vf2_contract enum (tr_host (substrate invert G H)) (tr_pat (pattern_of l))
               (node_ids (tr_host (substrate invert G H))) (node_ids (tr_pat (pattern_of l))) ->
  (lenN (enum (node_ids (tr_host (substrate invert G H))) (node_ids (tr_pat (pattern_of l)))) <= T)%N ->
  exists m', In m' (C06_Model.find enum (Cfg 0 0 T strict false) (tr_host (substrate invert G H)) (tr_pat (pattern_of l))) /\
             Permutation (id_map (node_ids (pattern_of l))) m'.
Proof.
  intros W NH Er Hnn Hc Hle.
  destruct (identity_match core invert G H W NH) as (rc' & l' & r' & Er' & Hm & _).
  rewrite Er in Er'. inversion Er'; subst rc' l' r'.
  apply (accepted_match_among_raw enum T strict (substrate invert G H) (pattern_of l) _); try assumption.
  - unfold match_okb in Hm. apply andb_prop in Hm. destruct Hm as [Hm _]. apply andb_prop in Hm. destruct Hm as [Hm _].
    apply andb_prop in Hm. destruct Hm as [Hm _]. apply andb_prop in Hm. destruct Hm as [Hm _].
    rewrite id_map_fst in Hm. apply nodupb_NoDup. exact Hm.
  - exact (counts_nonneg _ Hnn).
Qed.
