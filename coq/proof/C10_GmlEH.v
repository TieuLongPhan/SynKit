(** C10 — proofs: explicit_hydrogen=True exports of a graph without implicit hydrogens (a reaction centre as get_rc
    returns it: hcount dropped) read back to the same ITS as explicit_hydrogen=False exports. *)
From Coq Require Import String List NArith ZArith Bool Lia.
From SK Require Import lib.LGraph lib.StrJoin model.C10_Model proof.C10_Proof proof.C10_Views proof.C10_Build
  proof.C10_Copy proof.C10_GmlRead proof.C10_GmlWrite proof.C10_Hydrogen proof.C10_HRound.
Import ListNotations.
Local Open Scope Z_scope.

(** ** h_to_explicit on a graph without implicit hydrogens changes neither lookup *)
Lemma h_explicit_nohc (c : gr) : gwf c -> (forall n a, label c n = Some a -> cval a <= 0) ->
  let E := h_to_explicit c None false in
  node_ids E = node_ids c /\ (forall n, label E n = label c n) /\ (forall u v, adj E u v = adj c u v) /\ gwf E.
Proof.
  intros W Hc. destruct (hexp_run c None false W) as (P & IE & _ & LE & CE). intros E.
  change E with (fst (hexp_loop c None false)). set (E' := fst (hexp_loop c None false)) in *.
  assert (P = []) as ->.
  { destruct P as [|[h m] P']; [reflexivity|]. exfalso.
    destruct (ei_h _ _ _ _ IE h m (or_introl eq_refl)) as [_ Hm].
    apply has_node_in, has_node_label in Hm. destruct Hm as [a La].
    pose proof (CE m a La) as Cm. rewrite cnt_cons in Cm. simpl snd in Cm. rewrite N.eqb_refl in Cm.
    change (hexp_count false a) with (cval a) in Cm.
    pose proof (Hc m a La). destruct (mem m _); [|discriminate]. destruct (cval a); simpl in Cm; try discriminate; lia. }
  assert (node_ids E' = node_ids c) as Eids by (rewrite (ei_ids _ _ _ _ IE); apply app_nil_r).
  split; [exact Eids|split; [|split; [|exact (ei_wf _ _ _ _ IE)]]].
  - intros n. destruct (in_dec N.eq_dec n (node_ids c)) as [Hn|Hn].
    + apply has_node_in, has_node_label in Hn. destruct Hn as [a La]. rewrite La, (LE n a La).
      destruct (mem n _); [|reflexivity]. f_equal. change (upd a = a).
      unfold upd. pose proof (Hc n a La). destruct (Z.ltb_spec 0 (cval a)); [lia|reflexivity].
    + assert (label c n = None) as -> by (apply has_node_false, not_true_is_false; intros H; apply has_node_in in H; contradiction).
      apply has_node_false, not_true_is_false. intros H. apply has_node_in in H. rewrite Eids in H. contradiction.
  - intros u v. rewrite (ei_adj _ _ _ _ IE). reflexivity.
Qed.

(** ** the context section of an explicit_hydrogen=True export *)
Definition Fedge (e : N * N * eatt) : list gent :=
  let '(u, v, x) := e in
  if match e_std x with Some s => s =? 0 | None => true end then [GEdge u v (order_label_any (e_ord x) 0)] else [].
Lemma context_entries_eh g ch :
  context_entries g ch true = flat_map (Nent (fun n => negb (mem n ch))) (gnodes g) ++ flat_map Fedge (edges_iter g).
Proof.
  unfold context_entries. f_equal. apply flat_map_ext. intros [n a]. unfold Nent. simpl. destruct (mem n ch); reflexivity.
Qed.
Lemma Fedge_edges l e : In e (rev (flat_map Fedge l)) -> is_gedge e.
Proof.
  rewrite <- in_rev, in_flat_map. intros ([[u v] x] & _ & H). unfold Fedge in H.
  destruct (match e_std x with Some s => s =? 0 | None => true end); [|destruct H]. destruct H as [<-|[]]. exact Logic.I.
Qed.

Definition stdc (x : eatt) : bool := match e_std x with Some s => s =? 0 | None => true end.
Lemma ge_find_Fedge (g : gr) u v : gwf g ->
  ge_find u v (rev (flat_map Fedge (edges_iter g))) =
  match adj g u v with Some x => if stdc x then Some (order_label_any (e_ord x) 0) else None | None => None end.
Proof.
  intros W. destruct (ge_find u v _) as [s|] eqn:F.
  - apply ge_find_some_in in F. destruct F as (a & b & Hin & P). rewrite <- in_rev, in_flat_map in Hin.
    destruct Hin as ([[a' b'] x] & Hin & Hx). unfold Fedge in Hx. fold (stdc x) in Hx.
    destruct (stdc x) eqn:S; [|destruct Hx]. destruct Hx as [E|[]]. inversion E; subst.
    apply (edges_iter_data g a b x W) in Hin. rewrite <- (adj_pair g _ _ _ _ P), Hin, S. reflexivity.
  - destruct (adj g u v) as [x|] eqn:A; [|reflexivity]. destruct (stdc x) eqn:S; [|reflexivity]. exfalso.
    destruct (adj_in_edges_iter g u v x W A) as (a & b & Hin & P).
    apply (ge_find_in_some u v (rev (flat_map Fedge (edges_iter g))) a b (order_label_any (e_ord x) 0)); [|exact P|exact F].
    rewrite <- in_rev. apply in_flat_map. exists (a, b, x). split; [exact Hin|]. unfold Fedge. fold (stdc x). rewrite S. left. reflexivity.
Qed.
Lemma endp_Fedge (g : gr) n : gwf g -> endp n (rev (flat_map Fedge (edges_iter g))) = true -> has_node g n = true.
Proof.
  intros W E. unfold endp in E. apply existsb_exists in E. destruct E as (e & Hin & He). rewrite <- in_rev, in_flat_map in Hin.
  destruct Hin as ([[a b] x] & Hin & Hx). unfold Fedge in Hx.
  destruct (match e_std x with Some s => s =? 0 | None => true end); [|destruct Hx]. destruct Hx as [<-|[]]. simpl in He.
  destruct (edges_iter_ends g a b x W Hin) as [Ha Hb].
  apply orb_true_iff in He. rewrite !N.eqb_eq in He. destruct He as [<-|<-]; assumption.
Qed.


Lemma ctx_eh_gn K ch n : gwf K -> gn_find n (rev (context_entries K ch true)) =
  match label K n with Some a => if mem n ch then None else Some (node_label a) | None => None end.
Proof.
  intros WK. rewrite context_entries_eh, rev_app_distr, gn_find_app.
  rewrite gn_find_edges by (intros e He; exact (Fedge_edges _ _ He)).
  rewrite gn_find_sel by apply (gwf_nd _ WK). fold (label K n). destruct (label K n); [destruct (mem n ch)|]; reflexivity.
Qed.
Lemma ctx_eh_ge K ch u v : gwf K -> ge_find u v (rev (context_entries K ch true)) =
  match adj K u v with Some x => if stdc x then Some (order_label_any (e_ord x) 0) else None | None => None end.
Proof.
  intros WK. rewrite context_entries_eh, rev_app_distr, ge_find_app, (ge_find_Fedge K u v WK).
  rewrite (ge_find_nodes u v (rev (flat_map (Nent _) _))) by (intros e He; exact (Nent_nodes _ _ _ He)).
  destruct (adj K u v) as [x|]; [destruct (stdc x)|]; reflexivity.
Qed.
Lemma ctx_eh_endp K ch n : gwf K -> endp n (rev (context_entries K ch true)) = true -> has_node K n = true.
Proof.
  intros WK. rewrite context_entries_eh, rev_app_distr, endp_app.
  rewrite (endp_nodes n (rev (flat_map (Nent _) _))) by (intros e He; exact (Nent_nodes _ _ _ He)). rewrite orb_false_r.
  apply endp_Fedge, WK.
Qed.

Lemma ctx_like_eh c K ch : IOK c -> gwf K -> (forall n, label K n = label c n) -> (forall u v, adj K u v = adj c u v) ->
  ctx_like c ch (context_entries K ch true).
Proof.
  intros Hok WK HL HA. split.
  - intros n. rewrite (ctx_eh_gn K ch n WK), HL. reflexivity.
  - intros u v G. rewrite (ctx_eh_ge K ch u v WK), HA in G. unfold dd.
    destruct (adj c u v) as [x|] eqn:A; [|congruence]. destruct (stdc x) eqn:S; [|congruence].
    destruct (iok_edge c u v x Hok A) as (oa & ob & -> & Oa & Ob & Hne & _). unfold stdc in S. simpl in S. apply Z.eqb_eq in S.
    assert (oa = ob) by lia. subst ob. pose proof (ord_ok_nonneg oa Oa). unfold ord_of. simpl.
    assert (0 <? oa = true) as -> by (apply Z.ltb_lt; lia). split; discriminate.
  - intros n E. apply (ctx_eh_endp K ch n WK) in E. unfold has_node in E. rewrite HL in E. destruct (label c n); [discriminate|discriminate].
Qed.

Theorem gml_roundtrip_eh_iok c : IOK c -> (forall n a, label c n = Some a -> cval a <= 0) ->
  let I' := gml_to_its (its_to_gml c false false true) in
  (forall n, has_node I' n = has_node c n) /\
  (forall n a, label c n = Some a ->
     label I' n = Some (gml_node n (tg_el (tG_of a)) (tg_ch (tG_of a)) (tg_ch (tH_of a)))) /\
  (forall u v, adj I' u v = adj c u v).
Proof.
  intros Hok Hc. destruct (h_explicit_nohc c (iok_gwf c Hok) Hc) as (_ & KL & KA & KW). cbv zeta in KL, KA, KW.
  unfold gml_to_its, its_to_gml. rewrite its_decompose_sides by exact Hok. unfold nx_to_gml. cbv iota.
  apply (gml_pipeline_ctx c _ _ _ Hok (side_graph_like c false Hok) (side_graph_like c true Hok)).
  apply ctx_like_eh; assumption.
Qed.

Theorem gml_roundtrip_eh c : its_ok c = true -> hc_free c = true ->
  let I' := gml_to_its (its_to_gml c false false true) in
  (forall n, has_node I' n = has_node c n) /\
  (forall n a, label c n = Some a ->
     label I' n = Some (gml_node n (tg_el (tG_of a)) (tg_ch (tG_of a)) (tg_ch (tH_of a)))) /\
  (forall u v, adj I' u v = adj c u v).
Proof.
  intros H Hf. apply gml_roundtrip_eh_iok; [apply its_ok_IOK; exact H|].
  intros n a L. apply assoc_in in L. unfold hc_free in Hf. rewrite forallb_forall in Hf. specialize (Hf _ L). simpl in Hf.
  apply Z.leb_le in Hf. exact Hf.
Qed.

(** non-vacuity: a centre with an unchanged H-H-like bond kept by get_rc would carry a context edge; here the weakened
    bond 20-30 of ex_centre is changed, so add an unchanged one *)
Definition ex_centre_eh : gr :=
  LG (map (fun p : N * natt => (fst p, rc_attr (snd p))) (gnodes ex_centre))
     (gedges ex_centre ++ [(10%N, 40%N, EA (Some (OP 4 4)) (Some 0))]).
Definition ex_centre_eh' : gr :=
  LG (gnodes ex_centre_eh ++ [(40%N, rc_attr (ex_nd "S" 0 0 4))]) (gedges ex_centre_eh).
Example gml_roundtrip_eh_ex :
  its_ok ex_centre_eh' = true /\ hc_free ex_centre_eh' = true /\
  List.length (flat_map snd (its_to_gml ex_centre_eh' false false true)) = 13%nat /\
  List.length (flat_map snd (its_to_gml ex_centre_eh' false false false)) = 12%nat /\
  adj (gml_to_its (its_to_gml ex_centre_eh' false false true)) 10%N 40%N = Some (EA (Some (OP 4 4)) (Some 0)).
Proof. vm_compute. repeat split. Qed.
