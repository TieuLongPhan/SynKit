(** C03 — the WIRING of _explicit_h: every new explicit hydrogen goes from a donor (reactant-side hydrogen count
    exceeds the product-side one) to a recipient (the opposite) that are connected through shared h_pairs ids — the
    same hydrogen-transfer group; the groups (components of the h_pairs relation) are duplicate-free and pairwise
    disjoint. *)
From Coq Require Import List NArith ZArith Bool.
From SK Require Import lib.Tok lib.LGraph model.C03_Model model.C03_Order proof.C03_Proof proof.C03_Glue proof.C03_ExplicitH proof.C03_ExplicitShape.
Import ListNotations.
Local Open Scope Z_scope.

Lemma share_pair_sym T a b : share_pair T a b -> share_pair T b a.
Proof. intros (pid & A & B & H1 & H2 & H3 & H4). exists pid, B, A. auto. Qed.
Lemma same_group_trans T a b c : same_group T a b -> same_group T b c -> same_group T a c.
Proof. induction 1 as [|a b c0 Hs Hg IH]; intros Hbc; [exact Hbc|]. eapply sg_step; eauto. Qed.
Lemma same_group_sym T a b : same_group T a b -> same_group T b a.
Proof.
  induction 1 as [|a b c Hs Hg IH]; [constructor|]. eapply same_group_trans; [exact IH|].
  eapply sg_step; [apply share_pair_sym; exact Hs|constructor].
Qed.

(** * pair_to_nodes: every listed atom carries the pair id *)
Definition pt_ok (T : its) (pt : list (N * list N)) : Prop :=
  forall pid ns a, In (pid, ns) pt -> In a ns -> exists A, In (a, A) (gnodes T) /\ In pid (hp_of A).

Lemma pt_add_in pt pid n : forall q ns a, In (q, ns) (pt_add pt pid n) -> In a ns ->
  (exists ns0, In (q, ns0) pt /\ In a ns0) \/ (q = pid /\ a = n).
Proof.
  induction pt as [|[q0 ns0] r IH]; simpl; intros q ns a I Ia.
  - destruct I as [I|[]]. inversion I; subst. destruct Ia as [<-|[]]. auto.
  - destruct (N.eqb_spec q0 pid) as [->|Ne].
    + destruct I as [I|I].
      * inversion I; subst. destruct (mem n ns0) eqn:Em.
        -- left. exists ns0. auto.
        -- apply in_app_or in Ia. destruct Ia as [Ia|[<-|[]]]; [left; exists ns0; auto|auto].
      * left. exists ns. auto.
    + destruct I as [I|I].
      * inversion I; subst. left. exists ns. auto.
      * destruct (IH q ns a I Ia) as [(ns1 & I1 & I2)|E]; [left; exists ns1; auto|auto].
Qed.

Lemma pair_to_nodes_inv (P : list (N * list N) -> Prop) T :
  P [] -> (forall pt pid k A, In (k, A) (gnodes T) -> In pid (hp_of A) -> P pt -> P (pt_add pt pid k)) -> P (pair_to_nodes T).
Proof.
  intros P0 Hs. unfold pair_to_nodes. apply fold_left_inv; [|exact P0]. intros pt [k A] Ik Hpt. cbn [fst snd].
  apply fold_left_inv; [|exact Hpt]. intros pt' pid Ip. exact (Hs pt' pid k A Ik Ip).
Qed.

Lemma pair_to_nodes_ok T : pt_ok T (pair_to_nodes T).
Proof.
  apply pair_to_nodes_inv; [intros pid ns a []|]. intros pt pid k A Hk Hp H0 q ns a I Ia.
  destruct (pt_add_in pt pid k q ns a I Ia) as [(ns0 & I1 & I2)|[-> ->]]; [exact (H0 q ns0 a I1 I2)|eauto].
Qed.

(** * components: all atoms of one component are in the same group *)
Lemma in_union a b x : In x (union a b) <-> In x a \/ In x b.
Proof.
  unfold union. rewrite in_app_iff, filter_In. split; [tauto|]. intros [H|H]; [auto|].
  destruct (mem x a) eqn:E; [left; apply mem_spec; exact E|right; auto].
Qed.
Lemma in_fold_union hs : forall ns x, In x (fold_left union hs ns) <-> In x ns \/ exists c, In c hs /\ In x c.
Proof.
  induction hs as [|h r IH]; intros ns x; cbn [fold_left].
  - split; [auto|]. intros [H|(c & [] & _)]. exact H.
  - rewrite IH, in_union. split.
    + intros [[H|H]|(c & I & Ic)]; [auto|right; exists h; simpl; auto|right; exists c; simpl; auto].
    + intros [H|(c & [<-|I] & Ic)]; [auto|auto|right; exists c; auto].
Qed.
Lemma inter_spec a b : inter a b = true <-> exists x, In x a /\ In x b.
Proof.
  unfold inter. rewrite existsb_exists. split; intros (x & H1 & H2); exists x; (split; [exact H1|]); apply mem_spec; exact H2.
Qed.

Definition conn (R : N -> N -> Prop) (cs : list (list N)) : Prop := forall c a b, In c cs -> In a c -> In b c -> R a b.

Lemma add_group_conn (R : N -> N -> Prop) cs ns :
  (forall a, R a a) -> (forall a b, R a b -> R b a) -> (forall a b c, R a b -> R b c -> R a c) ->
  (forall a b, In a ns -> In b ns -> R a b) -> conn R cs -> conn R (add_group cs ns).
Proof.
  intros Rr Rs Rt Hns Hc. unfold add_group. intros c a b [<-|Ic] Ia Ib.
  - assert (K : forall x, In x (fold_left union (filter (inter ns) cs) ns) -> exists y, In y ns /\ R x y).
    { intros x Ix. apply in_fold_union in Ix. destruct Ix as [Ix|(c1 & I1 & Ix)]; [exists x; auto|].
      apply filter_In in I1. destruct I1 as [I1 Hi]. apply inter_spec in Hi. destruct Hi as (y & Y1 & Y2).
      exists y. split; [exact Y1|]. exact (Hc c1 x y I1 Ix Y2). }
    destruct (K a Ia) as (x & X1 & X2). destruct (K b Ib) as (y & Y1 & Y2).
    apply (Rt a x b X2). apply (Rt x y b (Hns x y X1 Y1)). apply Rs. exact Y2.
  - apply filter_In in Ic. destruct Ic as [Ic _]. exact (Hc c a b Ic Ia Ib).
Qed.

Lemma components_inv (P : list (list N) -> Prop) pt :
  P [] -> (forall cs g, In g pt -> P cs -> P (add_group cs (snd g))) -> P (components pt).
Proof. intros P0 Hs. unfold components. apply fold_left_inv; [exact Hs|exact P0]. Qed.

Lemma components_conn (R : N -> N -> Prop) pt :
  (forall a, R a a) -> (forall a b, R a b -> R b a) -> (forall a b c, R a b -> R b c -> R a c) ->
  (forall g a b, In g pt -> In a (snd g) -> In b (snd g) -> R a b) -> conn R (components pt).
Proof.
  intros Rr Rs Rt Hpt. apply components_inv; [intros c a b []|].
  intros cs g Ig Hc. apply add_group_conn; auto. intros a b. exact (Hpt g a b Ig).
Qed.

Lemma components_same_group T : conn (same_group T) (components (pair_to_nodes T)).
Proof.
  apply components_conn; [constructor|apply same_group_sym|apply same_group_trans|].
  intros [pid ns] a b I Ia Ib. cbn [snd] in *.
  destruct (pair_to_nodes_ok T pid ns a I Ia) as (A & HA & PA). destruct (pair_to_nodes_ok T pid ns b I Ib) as (B & HB & PB).
  eapply sg_step; [|constructor]. exists pid, A, B. auto.
Qed.

(** * the components are duplicate-free and pairwise disjoint *)
Definition disj (a b : list N) : Prop := forall x, In x a -> ~ In x b.
Definition good_cs (cs : list (list N)) : Prop := Forall (@NoDup N) cs /\ ForallOrdPairs disj cs.

Lemma nodup_app_disj (a b : list N) : NoDup a -> NoDup b -> (forall x, In x a -> ~ In x b) -> NoDup (a ++ b).
Proof.
  induction 1 as [|x r Hx Hr IH]; simpl; intros Hb Hd; [exact Hb|]. constructor.
  - intros I. apply in_app_or in I. destruct I as [I|I]; [contradiction|]. exact (Hd x (or_introl eq_refl) I).
  - apply IH; [exact Hb|]. intros y Iy. apply Hd. right. exact Iy.
Qed.
Lemma nodup_union a b : NoDup a -> NoDup b -> NoDup (union a b).
Proof.
  intros Ha Hb. unfold union. apply nodup_app_disj; [exact Ha|apply NoDup_filter; exact Hb|].
  intros x Ia I. apply filter_In in I. destruct I as [_ I]. apply negb_true_iff in I.
  apply mem_spec in Ia. congruence.
Qed.

Lemma nodup_fold_union hs : forall ns, NoDup ns -> Forall (@NoDup N) hs -> NoDup (fold_left union hs ns).
Proof.
  induction hs as [|h r IH]; intros ns Hn Hh; [exact Hn|]. cbn [fold_left]. inversion Hh; subst.
  apply IH; [apply nodup_union; assumption|assumption].
Qed.

Lemma FOP_filter {A} (R : A -> A -> Prop) (c : A -> bool) l : ForallOrdPairs R l -> ForallOrdPairs R (filter c l).
Proof.
  induction 1 as [|x l Hx Hl IH]; simpl; [constructor|]. destruct (c x); [constructor|]; auto.
  apply Forall_forall. intros y I. apply filter_In in I. rewrite Forall_forall in Hx. apply Hx. tauto.
Qed.
Lemma Forall_filter' {A} (P : A -> Prop) (c : A -> bool) l : Forall P l -> Forall P (filter c l).
Proof. rewrite !Forall_forall. intros H x I. apply filter_In in I. apply H. tauto. Qed.

Lemma add_group_good cs ns : NoDup ns -> good_cs cs -> good_cs (add_group cs ns).
Proof.
  intros Hn [G1 G2]. unfold add_group. split.
  - constructor; [apply nodup_fold_union; [exact Hn|apply Forall_filter'; exact G1]|apply Forall_filter'; exact G1].
  - constructor; [|apply FOP_filter; exact G2].
    apply Forall_forall. intros m Im. apply filter_In in Im. destruct Im as [Im Hm]. apply negb_true_iff in Hm.
    intros x Ix Ixm. apply in_fold_union in Ix. destruct Ix as [Ix|(c1 & I1 & Ix)].
    + assert (inter ns m = true) by (apply inter_spec; exists x; auto). congruence.
    + apply filter_In in I1. destruct I1 as [I1 H1].
      destruct (ForallOrdPairs_In G2 c1 m I1 Im) as [E|[D|D]].
      * subst. congruence.
      * exact (D x Ix Ixm).
      * exact (D x Ixm Ix).
Qed.

Definition pt_nodup (pt : list (N * list N)) : Prop := forall g, In g pt -> NoDup (snd g).
Lemma pt_add_nodup pt pid n : pt_nodup pt -> pt_nodup (pt_add pt pid n).
Proof.
  unfold pt_nodup. induction pt as [|[q ns] r IH]; simpl; intros H g I.
  - destruct I as [<-|[]]. simpl. repeat constructor. intros [].
  - destruct (N.eqb q pid).
    + destruct I as [<-|I]; [|apply H; right; exact I]. simpl. destruct (mem n ns) eqn:E; [exact (H (q, ns) (or_introl eq_refl))|].
      apply nodup_app_disj; [exact (H (q, ns) (or_introl eq_refl))|repeat constructor; intros []|].
      intros x Ix [<-|[]]. apply mem_spec in Ix. congruence.
    + destruct I as [<-|I]; [exact (H (q, ns) (or_introl eq_refl))|]. apply IH; [intros g' I'; apply H; right; exact I'|exact I].
Qed.
Lemma pair_to_nodes_nodup T : pt_nodup (pair_to_nodes T).
Proof. apply pair_to_nodes_inv; [intros g []|]. intros pt pid k A _ _. apply pt_add_nodup. Qed.

Lemma components_good pt : pt_nodup pt -> good_cs (components pt).
Proof.
  intros Hpt. apply components_inv; [split; constructor|]. intros cs g Ig. apply add_group_good. exact (Hpt g Ig).
Qed.

(** * the wiring theorem: every new hydrogen joins a donor and a recipient of ONE group, whatever the visiting order *)
Section AnyOrder.
  Variable ord : list N -> list N.
  Hypothesis ord_in : forall l x, In x (ord l) <-> In x l.

  Theorem explicit_h_ord_wiring T T' ms : NoDup (node_ids T) -> explicit_h_ord ord T = Some (T', ms) ->
    gedges T' = gedges T ++ new_edges (N.succ (max_id T)) ms /\
    forall sd, In sd ms ->
      same_group T (fst sd) (snd sd) /\ 0 < dl_of T (fst sd) /\ dl_of T (snd sd) < 0.
  Proof.
    intros Hnd H. split; [exact (proj1 (explicit_h_ord_shape ord ord_in T T' ms Hnd H))|].
    destruct (explicit_h_ord_unfold ord T T' ms H) as (Hm & _). unfold all_migrations_ord in Hm.
    intros sd I. destruct (comp_foldo_in ord ord_in T _ _ _ Hm sd I) as [[]|(comp & Ic & A & B & C & D)].
    split; [|auto]. exact (components_same_group T comp (fst sd) (snd sd) Ic A B).
  Qed.
End AnyOrder.

Theorem explicit_h_wiring T T' ms : NoDup (node_ids T) -> explicit_h T = Some (T', ms) ->
  gedges T' = gedges T ++ new_edges (N.succ (max_id T)) ms /\
  forall sd, In sd ms ->
    same_group T (fst sd) (snd sd) /\ 0 < dl_of T (fst sd) /\ dl_of T (snd sd) < 0.
Proof. rewrite <- explicit_h_ord_sort. apply explicit_h_ord_wiring. exact (fun l x => in_sort_N_iff x l). Qed.
