(** C06 — the calls of the trace are exactly of the two kinds the premise [oracle_ok] speaks about:
    whole host x whole pattern, or pattern component x host component that is large enough. *)
From Coq Require Import List NArith Bool Arith Lia.
From SK Require Import lib.LGraph lib.Mono lib.Reach model.C06_Model model.C06_Attrs model.C06_Trace lib.C06_Spec
  proof.C06_Attrs proof.C06_Trace proof.C06_TraceEx.
Import ListNotations.

Section Cover.
Variable enum : list N -> list N -> list mapping.

Definition call_kind (H P : graph) (c : call) : Prop :=
  let '(hn, pn, _) := c in
  (hn = node_ids H /\ pn = node_ids P) \/
  (In hn (comps H) /\ In pn (comps P) /\ length pn <= length hn).

Theorem trace_kind cfg H P c : In c (trace enum cfg H P) -> call_kind H P c.
Proof.
  apply (trace_forall enum H P (c_thr cfg) (call_kind H P)); [| |reflexivity].
  - intros cap. left. split; reflexivity.
  - intros cap hc pc n A B C. right. auto.
Qed.

(** hence, under [oracle_ok], every enumeration the search pulls from satisfies the VF2 contract *)
Corollary trace_calls_under_contract cfg H P hn pn k :
  oracle_ok enum H P -> In (hn, pn, k) (trace enum cfg H P) -> vf2_contract enum H P hn pn.
Proof.
  intros [Owhole Ocomp] Hin. destruct (trace_kind cfg H P _ Hin) as [[-> ->]|(A & B & C)].
  - exact Owhole.
  - exact (Ocomp hn pn A B C).
Qed.
End Cover.

(** non-vacuity: a component call of the pair of proof/C06_TraceEx.v *)
Example ex_trace_kind : call_kind H0 P0 ([1; 2; 3]%N, [10; 11]%N, 2%N) /\ In [1; 2; 3]%N (comps H0).
Proof.
  split.
  - apply (trace_kind E0 (Cfg 1 0 5000 false false) H0 P0). vm_compute. left. reflexivity.
  - vm_compute. left. reflexivity.
Qed.
