(** C08 — canonical_form(max_depth): when early_stop is reported False the search was complete - the returned permutation is the
    canonical one, whatever the bound (the flag is sticky: once a node deeper than max_depth is met it stays True). *)
From Coq Require Import List NArith ZArith Bool Arith Lia Permutation.
From SK Require Import lib.LGraph lib.IRSortKeys lib.IRCore lib.IRSearch lib.StrJoin.
From SK Require Import model.C08_Model proof.C08_Spec proof.C08_Sort proof.C08_IR proof.C08_Faithful proof.C08_Nauty proof.C08_MaxDepth.
Import ListNotations.

Theorem canon_md_no_early_stop md g p : NoDup (node_ids g) -> canon_md md g = Some (p, false) -> p = nauty_perm g.
Proof.
  intros Hnd E.
  assert (Hf : snd (nauty_md md g) = false).
  { unfold canon_md in E. destruct (fst (fst (nauty_md md g))) as [[bl bp]|]; [|discriminate]. inversion E. reflexivity. }
  rewrite (canon_md_complete md g Hnd Hf) in E. inversion E. reflexivity.
Qed.

(* non-vacuity: md_g with max_depth 2 < 4 nodes reports early_stop False (md_ex) - the theorem applies below the trivial bound *)
Example md2_ex : canon_md 2 md_g = Some (nauty_perm md_g, false) /\ 2 < length (gnodes md_g).
Proof. destruct md_ex as (_ & _ & H & _). split; [exact H|simpl; lia]. Qed.

Print Assumptions canon_md_no_early_stop.
