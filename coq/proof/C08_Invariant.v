(** C08 — the exact back-end is invariant: isomorphic graphs (on the covered attributes), however numbered,
    ordered or oriented, get the same canonical graph (on the covered attributes) and the same serialisation,
    hence the same signature.  From the equality of the minimal labels (C08_Equiv.v), injectivity of the label
    string (C08_Render.v) and serialise_geq_cov.  The label argument is stated for two graphs ([equal_labels_geq_cov]:
    orderings of two graphs with the same label give the same covered graph); two leaves of one graph are its diagonal. *)
From Coq Require Import List NArith ZArith Bool Arith Lia Permutation.
From SK Require Import lib.LGraph lib.IRSortKeys lib.IRCore lib.IRSearch lib.StrJoin.
From SK Require Import model.C08_Model proof.C08_Spec proof.C08_Sort proof.C08_Faithful proof.C08_Cov proof.C08_SigFun
                       proof.C08_Render proof.C08_IR proof.C08_Nauty proof.C08_Sound proof.C08_Equiv.
From SK Require lib.IRInst.
Import ListNotations.

(* ---------------- extending an injection on a finite node list to all of N ---------------- *)
Definition lmax (l : list N) : N := fold_right N.max 0%N l.
Lemma lmax_ge l x : In x l -> (x <= lmax l)%N.
Proof. induction l as [|y l IH]; simpl; [tauto|]. intros [->|I]; [lia|specialize (IH I); lia]. Qed.
Definition extend (f : N -> N) (l : list N) (x : N) : N :=
  if memN x l then f x else (lmax (map f l) + 1 + x)%N.
Lemma extend_on f l x : In x l -> extend f l x = f x.
Proof. intros I. unfold extend. rewrite (proj2 (C08_IR.memN_spec x l) I). reflexivity. Qed.
Lemma extend_inj f l : C08_Spec.inj_on f l -> forall x y, extend f l x = extend f l y -> x = y.
Proof.
  intros Hi x y. unfold extend.
  destruct (memN x l) eqn:Ex, (memN y l) eqn:Ey; intros E.
  - apply Hi; auto; apply C08_IR.memN_spec; auto.
  - apply C08_IR.memN_spec in Ex. pose proof (lmax_ge (map f l) (f x) (in_map f l x Ex)). lia.
  - apply C08_IR.memN_spec in Ey. pose proof (lmax_ge (map f l) (f y) (in_map f l y Ey)). lia.
  - lia.
Qed.
(* a renumbering that is injective on the nodes can be taken injective everywhere *)
Lemma global_renumbering (Q : graph -> graph -> Prop) (g h : graph) f :
  (forall a b x, In (a, b, x) (gedges g) -> In a (node_ids g) /\ In b (node_ids g) /\ a <> b) ->
  C08_Spec.inj_on f (node_ids g) -> Q (relabel f g) h ->
  exists pi, (forall x y, pi x = pi y -> x = y) /\ (forall x, In x (node_ids g) -> pi x = f x) /\ Q (relabel pi g) h.
Proof.
  intros Hend Hf Hq. exists (extend f (node_ids g)). split; [apply extend_inj; exact Hf|]. split; [apply extend_on|].
  rewrite (relabel_ext_ends (extend f (node_ids g)) f g Hend); [exact Hq|]. apply extend_on.
Qed.
Lemma relabel_ext_on f f' (g : graph) : wf g -> (forall x, In x (node_ids g) -> f x = f' x) -> relabel f g = relabel f' g.
Proof. intros Hg. apply relabel_ext_ends. apply Hg. Qed.

(* ---------------- position tables ---------------- *)
Notation ix p := (apply_map (mapping_of p)).

Lemma assoc_combine_pi pi (pi_inj : forall x y : N, pi x = pi y -> x = y) x (l : list N) : forall vals : list N,
  assoc (pi x) (combine (map pi l) vals) = assoc x (combine l vals).
Proof.
  induction l as [|y l IH]; intros [|v vals]; simpl; auto.
  rewrite (eqb_pi pi pi_inj). destruct (N.eqb x y); auto.
Qed.
Lemma ix_map pi (pi_inj : forall x y : N, pi x = pi y -> x = y) p x : ix (map pi p) (pi x) = ix p x.
Proof. unfold apply_map, mapping_of. rewrite map_length. rewrite (assoc_combine_pi pi pi_inj). reflexivity. Qed.

Lemma ix_combine_gen (p p' : list N) : forall vals : list N, NoDup p -> NoDup p' -> length p = length p' ->
  forall a a', In (a, a') (combine p p') -> apply_map (combine p vals) a = apply_map (combine p' vals) a'.
Proof.
  revert p'. induction p as [|x p IH]; intros [|x' p'] vals Hn Hn' Hl a a' I; simpl in *; try contradiction; try discriminate.
  inversion Hn as [|? ? Hx Hnp]; subst. inversion Hn' as [|? ? Hx' Hnp']; subst.
  destruct vals as [|v vals]; [unfold apply_map; reflexivity|].
  destruct I as [E|I].
  - inversion E; subst. unfold apply_map. simpl. rewrite !N.eqb_refl. reflexivity.
  - unfold apply_map. simpl.
    destruct (N.eqb_spec a x) as [->|_]; [exfalso; apply Hx; eapply in_combine_l; eauto|].
    destruct (N.eqb_spec a' x') as [->|_]; [exfalso; apply Hx'; eapply in_combine_r; eauto|].
    apply (IH p' vals); auto.
Qed.
Lemma ix_combine p p' a a' : NoDup p -> NoDup p' -> length p = length p' -> In (a, a') (combine p p') -> ix p a = ix p' a'.
Proof. intros Hn Hn' Hl I. unfold mapping_of. rewrite <- Hl. apply ix_combine_gen; auto. Qed.

Lemma in_combine_ex {A B} (l : list A) : forall (l' : list B) a, length l = length l' -> In a l -> exists b, In (a, b) (combine l l').
Proof.
  induction l as [|x l IH]; intros [|y l'] a Hl I; simpl in *; try contradiction; try discriminate.
  destruct I as [->|I]; [exists y; auto|]. destruct (IH l' a) as (b & Hb); auto. exists b. auto.
Qed.
Lemma map_eq_combine {A A' B} (f : A -> B) (f' : A' -> B) l : forall l', map f l = map f' l' ->
  forall a a', In (a, a') (combine l l') -> f a = f' a'.
Proof.
  induction l as [|x l IH]; intros [|y l'] E a a' I; simpl in *; try contradiction; try discriminate.
  inversion E. destruct I as [I|I]; [inversion I; subst; auto|eauto].
Qed.
Lemma combine_app_eq {A B} (l1 l2 : list A) (m1 m2 : list B) : length l1 = length m1 ->
  combine (l1 ++ l2) (m1 ++ m2) = combine l1 m1 ++ combine l2 m2.
Proof.
  revert m1. induction l1 as [|x l1 IH]; intros [|y m1] Hl; simpl in *; try discriminate; auto. f_equal. apply IH. lia.
Qed.
Lemma combine_map_pair (x x' : N) (r r' : list N) :
  combine (map (pair x) r) (map (pair x') r') = map (fun bb => ((x, fst bb), (x', snd bb))) (combine r r').
Proof. revert r'. induction r as [|b r IH]; intros [|b' r']; simpl; auto. f_equal. apply IH. Qed.

Lemma pairs_combine (p : list N) : forall p', length p = length p' ->
  forall a a' b b', In (a, a') (combine p p') -> In (b, b') (combine p p') -> a <> b ->
  In ((a, b), (a', b')) (combine (pairs p) (pairs p')) \/ In ((b, a), (b', a')) (combine (pairs p) (pairs p')).
Proof.
  induction p as [|x p IH]; intros [|x' p'] Hl a a' b b' Ia Ib Hne; simpl in *; try contradiction; try discriminate.
  rewrite combine_app_eq by (rewrite !map_length; lia). rewrite combine_map_pair.
  destruct Ia as [Ea|Ia], Ib as [Eb|Ib].
  - inversion Ea; inversion Eb; subst. congruence.
  - inversion Ea; subst. left. apply in_or_app. left. apply in_map_iff. exists (b, b'). auto.
  - inversion Eb; subst. right. apply in_or_app. left. apply in_map_iff. exists (a, a'). auto.
  - destruct (IH p' (eq_add_S _ _ Hl) a a' b b' Ia Ib Hne) as [H|H]; [left|right]; apply in_or_app; right; exact H.
Qed.

(* ---------------- two orderings with the same label give the same covered graph ---------------- *)
Lemma attr_el_ok (g : graph) : els_ok g -> forall v, el_ok (el (attr_of g v)).
Proof.
  intros Eg v. unfold attr_of, label. destruct (assoc v (gnodes g)) as [a|] eqn:E; [|reflexivity].
  apply assoc_in in E. apply (Eg (v, a)). exact E.
Qed.
Lemma wf_adj (g : graph) : wf g -> forall a b x, In (a, b, x) (gedges g) -> adj g a b = Some x.
Proof.
  intros (_ & _ & Hu) a b x I. apply in_split in I. destruct I as (l1 & l2 & E).
  destruct (Hu _ _ _ _ _ E) as [N1 _]. unfold adj. rewrite E, find_edge_app, N1. simpl.
  rewrite !N.eqb_refl. reflexivity.
Qed.

(* two orderings of the node sets of two graphs, walked in lockstep: every node has a partner at the same position *)
Lemma ix_partner (g h : graph) p q : NoDup (node_ids g) -> NoDup (node_ids h) ->
  Permutation p (node_ids g) -> Permutation q (node_ids h) -> length p = length q ->
  forall a, In a (node_ids g) -> exists a', In (a, a') (combine p q) /\ In a' (node_ids h) /\ ix p a = ix q a'.
Proof.
  intros Hnd Hnd' Hp Hq Hl a Ia.
  assert (Hn : NoDup p) by (exact (Permutation_NoDup (Permutation_sym Hp) Hnd)).
  assert (Hn' : NoDup q) by (exact (Permutation_NoDup (Permutation_sym Hq) Hnd')).
  apply (Permutation_in _ (Permutation_sym Hp)) in Ia. destruct (in_combine_ex p q a Hl Ia) as (a' & I).
  exists a'. split; auto. split; [apply (Permutation_in _ Hq); eapply in_combine_r; eauto|apply ix_combine; auto].
Qed.
Lemma cov_nodes_half (g h : graph) p q : NoDup (node_ids g) -> NoDup (node_ids h) ->
  Permutation p (node_ids g) -> Permutation q (node_ids h) -> length p = length q ->
  (forall a a', In (a, a') (combine p q) -> ncov (attr_of g a) = ncov (attr_of h a')) ->
  forall c, In c (cov_nodes (relabel (ix p) g)) -> In c (cov_nodes (relabel (ix q) h)).
Proof.
  intros Hnd Hnd' Hp Hq Hl Z1 c I. rewrite cov_nodes_relabel in *. apply in_map_iff in I. destruct I as (d & <- & I).
  unfold cov_nodes in I. apply in_map_iff in I. destruct I as ([a att] & <- & I).
  assert (Ia : In a (node_ids g)) by (unfold node_ids; change a with (fst (a, att)); apply in_map; exact I).
  destruct (ix_partner g h p q Hnd Hnd' Hp Hq Hl a Ia) as (a' & Iz & Ia' & Ei).
  unfold node_ids in Ia'. apply in_map_iff in Ia'. destruct Ia' as ([a2 att'] & E2 & I'). cbn [fst] in E2. subst a2.
  apply in_map_iff. exists (covn (a', att')). split.
  - unfold rn, covn. cbn [fst snd]. rewrite <- Ei. f_equal.
    pose proof (Z1 a a' Iz) as H.
    pose proof (attr_of_in g (a, att) Hnd I) as H1. pose proof (attr_of_in h (a', att') Hnd' I') as H2.
    cbn [fst snd] in H1, H2. rewrite H1, H2 in H. symmetry. exact H.
  - unfold cov_nodes. apply in_map. exact I'.
Qed.

Section TwoGraphs.
Variables g h : graph.
Hypothesis Hg : wf g.
Hypothesis Hh : wf h.

Definition zrel2 (p q : list N) : Prop :=
  (forall a a', In (a, a') (combine p q) -> ncov (attr_of g a) = ncov (attr_of h a')) /\
  (forall a a' b b', In (a, a') (combine p q) -> In (b, b') (combine p q) -> a <> b ->
     option_map ecov (adj g a b) = option_map ecov (adj h a' b')).

Lemma half2 p q : Permutation p (node_ids g) -> Permutation q (node_ids h) -> length p = length q -> zrel2 p q ->
  (forall c, In c (cov_nodes (relabel (ix p) g)) -> In c (cov_nodes (relabel (ix q) h))) /\
  (forall c, In c (cov_edges (relabel (ix p) g)) -> In c (cov_edges (relabel (ix q) h))).
Proof.
  intros Hp Hq Hl [Z1 Z2].
  pose proof (ix_partner g h p q (proj1 Hg) (proj1 Hh) Hp Hq Hl) as Hex.
  split.
  - apply cov_nodes_half; auto; [apply Hg|apply Hh].
  - intros c I. apply in_cov_edges in I. destruct I as (u & v & x & I & ->).
    unfold relabel in I. cbn [gedges] in I. apply in_map_iff in I. destruct I as ([[a b] x0] & E & I). inversion E; subst. clear E.
    pose proof (proj1 (proj2 Hg)) as Hend. destruct (Hend _ _ _ I) as (Ia & Ib & Hne).
    destruct (Hex a Ia) as (a' & Iza & Ia' & Eia). destruct (Hex b Ib) as (b' & Izb & Ib' & Eib).
    pose proof (Z2 a a' b b' Iza Izb Hne) as H. rewrite (wf_adj g Hg a b x I) in H. cbn [option_map] in H.
    destruct (adj h a' b') as [y|] eqn:Ey; [|discriminate]. cbn [option_map] in H. assert (Hxy : ecov x = ecov y) by congruence.
    unfold adj in Ey. apply find_edge_some in Ey. destruct Ey as (c & d & Ic & Hcd).
    apply in_cov_edges. exists (ix q c), (ix q d), y. split.
    + unfold relabel. cbn [gedges]. apply in_map_iff. exists (c, d, y). auto.
    + rewrite Eia, Eib, Hxy. destruct Hcd as [[-> ->]|[-> ->]]; [reflexivity|].
      rewrite N.min_comm, N.max_comm. reflexivity.
Qed.
End TwoGraphs.

Lemma label_zrel2 g h p q : els_ok g -> els_ok h -> length p = length q -> nlabel g p = nlabel h q -> zrel2 g h p q.
Proof.
  intros Eg Eh Hl E.
  destruct (nlabel_inj g h p q Hl (fun v _ => attr_el_ok g Eg v) (fun v _ => attr_el_ok h Eh v) E) as [E1 E2]. split.
  - intros a a' I. exact (map_eq_combine _ _ _ _ E1 a a' I).
  - intros a a' b b' Ia Ib Hne. destruct (pairs_combine p q Hl a a' b b' Ia Ib Hne) as [H|H].
    + exact (map_eq_combine _ _ _ _ E2 _ _ H).
    + pose proof (map_eq_combine _ _ _ _ E2 _ _ H) as H'. cbn [fst snd] in H'.
      rewrite (adj_sym g a b), (adj_sym h a' b'). exact H'.
Qed.

Theorem equal_labels_geq_cov g h p q : wf g -> wf h -> els_ok g -> els_ok h ->
  Permutation p (node_ids g) -> Permutation q (node_ids h) -> length p = length q -> nlabel g p = nlabel h q ->
  geq_cov (relabel (ix p) g) (relabel (ix q) h).
Proof.
  intros Hg Hh Eg Eh Pp Pq Hl E.
  destruct (half2 g h Hg Hh p q Pp Pq Hl (label_zrel2 g h p q Eg Eh Hl E)) as [A1 A2].
  destruct (half2 h g Hh Hg q p Pq Pp (eq_sym Hl) (label_zrel2 h g q p Eh Eg (eq_sym Hl) (eq_sym E))) as [B1 B2].
  pose proof (simple_relabel (ix p) g Hg (ix_inj_on g p (proj1 Hg) Pp)) as S1.
  pose proof (simple_relabel (ix q) h Hh (ix_inj_on h q (proj1 Hh) Pq)) as S2.
  split; apply NoDup_Permutation.
  - apply (NoDup_map_inv fst). rewrite <- node_ids_cov. apply S1.
  - apply (NoDup_map_inv fst). rewrite <- node_ids_cov. apply S2.
  - intros c. split; auto.
  - apply (NoDup_map_inv fst). apply S1.
  - apply (NoDup_map_inv fst). apply S2.
  - intros c. split; auto.
Qed.

Section SameLabel.
Variable g : graph.
Hypothesis Hg : wf g.
Hypothesis Eg : els_ok g.

Definition zrel (p p' : list N) : Prop :=
  (forall a a', In (a, a') (combine p p') -> ncov (attr_of g a) = ncov (attr_of g a')) /\
  (forall a a' b b', In (a, a') (combine p p') -> In (b, b') (combine p p') -> a <> b ->
     option_map ecov (adj g a b) = option_map ecov (adj g a' b')).

Lemma label_zrel p p' : length p = length p' -> nlabel g p = nlabel g p' -> zrel p p'.
Proof. exact (label_zrel2 g g p p' Eg Eg). Qed.

Lemma half p p' : Permutation p (node_ids g) -> Permutation p' (node_ids g) -> zrel p p' ->
  (forall c, In c (cov_nodes (relabel (ix p) g)) -> In c (cov_nodes (relabel (ix p') g))) /\
  (forall c, In c (cov_edges (relabel (ix p) g)) -> In c (cov_edges (relabel (ix p') g))).
Proof.
  intros Hp Hp'. apply (half2 g g Hg Hg p p' Hp Hp').
  rewrite (Permutation_length Hp), (Permutation_length Hp'). reflexivity.
Qed.

Theorem same_label_geq_cov p p' : Permutation p (node_ids g) -> Permutation p' (node_ids g) ->
  nlabel g p = nlabel g p' -> geq_cov (relabel (ix p) g) (relabel (ix p') g).
Proof.
  intros Hp Hp'. apply equal_labels_geq_cov; auto.
  rewrite (Permutation_length Hp), (Permutation_length Hp'). reflexivity.
Qed.
End SameLabel.

(* ---------------- every leaf of the search is a permutation of the node set ---------------- *)
Notation lvs k := (leaves2 _ lexleb (sigN k) (rfuel k) (children k) (sfuel k) (init_partition k) []).
Lemma leaf_perm (k : graph) p : NoDup (node_ids k) -> In p (lvs k) -> Permutation p (node_ids k).
Proof. intros Hnd. exact (search_leaf_perm k (sigN k) _ (init_vpart k) Hnd p). Qed.

(* ---------------- the invariance theorem ---------------- *)
Theorem nauty_invariant g h : wf g -> wf h -> els_ok g -> iso_cov g h ->
  geq_cov (canon_nauty g) (canon_nauty h) /\ serialise (canon_nauty g) = serialise (canon_nauty h).
Proof.
  intros Hg Hh Eg (f & Hf & Hq0).
  destruct (global_renumbering geq_cov g h f (proj1 (proj2 Hg)) Hf Hq0) as (pi & pi_inj & _ & Hq).
  pose proof (proj1 Hg) as Ng. pose proof (proj1 Hh) as Nh.
  destruct (nauty_perm_leaf g Ng) as [Lp Ep]. destruct (nauty_perm_leaf h Nh) as [Lq Eq].
  pose proof (nauty_label_rel pi pi_inj g h Hg Hq) as El. rewrite Ep, Eq in El. inversion El as [El'].
  (* the best leaf of h is the image of a leaf of g *)
  pose proof (leaves_rel pi pi_inj g h Hg Hq) as HL.
  apply (Permutation_in _ (Permutation_sym HL)) in Lq. apply in_map_iff in Lq. destruct Lq as (p' & Eq' & Lp').
  set (p := nauty_perm g) in *. set (q := nauty_perm h) in *.
  assert (Elab : nlabel g p = nlabel g p') by (rewrite <- El', <- Eq'; apply (nlabel_rel pi pi_inj g h Hg Hq)).
  pose proof (leaf_perm g p Ng Lp) as Pp. pose proof (leaf_perm g p' Ng Lp') as Pp'.
  assert (C : geq_cov (canon_nauty g) (canon_nauty h)).
  { unfold canon_nauty. fold p q.
    eapply geq_cov_trans; [apply (same_label_geq_cov g Hg Eg p p' Pp Pp' Elab)|].
    apply geq_cov_sym.
    eapply geq_cov_trans; [apply relabel_geq_cov; apply geq_cov_sym; exact Hq|].
    rewrite relabel_compose. rewrite (relabel_ext_on _ (ix p') g Hg); [apply geq_cov_refl|].
    intros x _. rewrite <- Eq'. apply ix_map. exact pi_inj. }
  split; [exact C|].
  apply serialise_geq_cov; [|exact C].
  unfold canon_nauty. apply simple_relabel; auto.
  apply ix_inj_on; auto.
Qed.

Theorem signature_invariant_nauty (D : Type) (digest : str -> D) g h : wf g -> wf h -> els_ok g -> iso_cov g h ->
  geq_cov (canon_nauty g) (canon_nauty h) /\ digest (serialise (canon_nauty g)) = digest (serialise (canon_nauty h)).
Proof. intros Hg Hh Eg Hi. destruct (nauty_invariant g h Hg Hh Eg Hi) as [H1 H2]. split; auto. f_equal. exact H2. Qed.

(* the signature is a function of the graph, nauty: special case f = identity *)
Theorem signature_function_nauty (D : Type) (digest : str -> D) g h : wf g -> wf h -> els_ok g -> geq_cov g h ->
  digest (serialise (canon_nauty g)) = digest (serialise (canon_nauty h)).
Proof.
  intros Hg Hh Eg Hq. apply (signature_invariant_nauty D digest g h); auto.
  exists (fun x => x). split; [intros x y _ _ E; exact E|].
  rewrite (relabel_id_on (fun x => x) g Hg); auto.
Qed.

(* non-vacuity: so_h (C08_Sound.v) is so_g renumbered 7->2, 5->9, 3->1, re-inserted, one edge flipped *)
Definition so_f (x : N) : N := if N.eqb x 7 then 2%N else if N.eqb x 5 then 9%N else 1%N.
Example inv_ex : wf so_g /\ wf so_h /\ els_ok so_g /\ iso_cov so_g so_h /\ gnodes (canon_nauty so_g) <> gnodes (canon_nauty so_h).
Proof.
  split; [apply wfb_sound; reflexivity|]. split; [apply wfb_sound; reflexivity|]. split; [apply so_ex|]. split.
  - exists so_f. split.
    + intros x y Hx Hy. simpl in Hx, Hy.
      destruct Hx as [<-|[<-|[<-|[]]]], Hy as [<-|[<-|[<-|[]]]]; vm_compute; intros E; try reflexivity; discriminate.
    + split; vm_compute; apply perm_swap.
  - vm_compute. discriminate.
Qed.

Print Assumptions nauty_invariant.
Print Assumptions signature_function_nauty.
