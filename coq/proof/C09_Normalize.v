(** C09 — the graph-level core of NormalizeAAM.fit (model/C09_Normalize.v), from C01's theorem about implicit_hydrogen:
    the hydrogens of the reaction centre stay explicit atoms on both sides, every other atom keeps its element, charge, aromaticity, atom_map and its TOTAL number of hydrogens (hcount + explicit hydrogen neighbours). *)
From Coq Require Import List NArith ZArith Bool.
From SK Require Import lib.LGraph model.C01_Model model.C02_Model model.C01_String model.C09_Normalize proof.C01_StringHyd.
Import ListNotations.
Local Open Scope Z_scope.

Theorem normalize_side_spec (X : mgraph) (lh : list Z) : wf X ->
  (* hydrogens whose atom map is in the list stay, unchanged *)
  (forall h a, label X h = Some a -> is_H a = true -> memZ (g_amap a) lh = true -> label (implicit_hydrogen X lh) h = Some a) /\
  (* a hydrogen that is not in the list disappears exactly when it has a non-hydrogen neighbour *)
  (forall h a, label X h = Some a -> is_H a = true -> memZ (g_amap a) lh = false ->
     label (implicit_hydrogen X lh) h = if has_heavy X h then None else Some a) /\
  (* every other atom stays with its element, aromaticity, charge, neighbours, atom_map and hydrogen total *)
  (forall n a, label X n = Some a -> is_H a = false ->
     exists a', label (implicit_hydrogen X lh) n = Some a' /\
       g_hc a' + count_h (implicit_hydrogen X lh) n = g_hc a + count_h X n /\
       g_el a' = g_el a /\ g_arom a' = g_arom a /\ g_ch a' = g_ch a /\ g_nb a' = g_nb a /\ g_amap a' = g_amap a).
Proof.
  intros W. destruct (implicit_hydrogen_spec X lh W) as (HL & _ & HK). split; [|split; [|exact HK]].
  - intros h a L Ha Hm. rewrite HL, L, Ha.
    assert (I : In h (preserved X lh)) by (apply (preserved_spec X lh h W); exists a; auto).
    apply mem_spec in I. rewrite I. reflexivity.
  - intros h a L Ha Hm. rewrite HL, L, Ha.
    assert (I : mem h (preserved X lh) = false).
    { destruct (mem h (preserved X lh)) eqn:E; [|reflexivity]. apply mem_spec in E. apply (preserved_spec X lh h W) in E.
      destruct E as (b & Lb & _ & Mb). rewrite L in Lb. injection Lb as <-. congruence. }
    rewrite I. cbn [orb]. destruct (has_heavy X h); reflexivity.
Qed.

(** NormalizeAAM.fit, graph level: both sides are treated with the SAME list - the hydrogens of the reaction centre *)
Theorem normalize_core_spec (G H : mgraph) : wf G -> wf H ->
  fst (normalize_core G H) = implicit_hydrogen G (list_hydrogen G H) /\
  snd (normalize_core G H) = implicit_hydrogen H (list_hydrogen G H) /\
  (forall z, In z (list_hydrogen G H) <->
     exists n a, In (n, a) (gnodes (get_rc (its_construct G H))) /\ i_el a = EL_H /\ z = i_amap a).
Proof.
  intros WG WH. split; [reflexivity|]. split; [reflexivity|].
  intros z. unfold list_hydrogen, rc_hydrogens. rewrite in_map_iff. split.
  - intros ([n a] & <- & I). apply filter_In in I. destruct I as [I E]. cbn [snd] in *. apply N.eqb_eq in E. exists n, a. auto.
  - intros (n & a & I & E & ->). exists (n, a). split; [reflexivity|]. apply filter_In. split; [exact I|]. cbn [snd]. apply N.eqb_eq. exact E.
Qed.

(** non-vacuity: CH2(H:3)(H:4) + X-X -> CH2(X)(H:4) + H:3-X with the reacting hydrogen H:3 and the spectator hydrogen H:4 explicit *)
Definition ex_NG : mgraph :=
  LG [(1%N, GN 70%N false 2 0 None 1); (3%N, GN EL_H false 0 0 None 3); (4%N, GN EL_H false 0 0 None 4);
      (5%N, GN 19519%N false 0 0 None 5); (6%N, GN 19519%N false 0 0 None 6)]
     [(1%N, 3%N, 2%Z); (1%N, 4%N, 2%Z); (5%N, 6%N, 2%Z)].
Definition ex_NH : mgraph :=
  LG [(1%N, GN 70%N false 2 0 None 1); (3%N, GN EL_H false 0 0 None 3); (4%N, GN EL_H false 0 0 None 4);
      (5%N, GN 19519%N false 0 0 None 5); (6%N, GN 19519%N false 0 0 None 6)]
     [(1%N, 5%N, 2%Z); (1%N, 4%N, 2%Z); (3%N, 6%N, 2%Z)].
Example ex_normalize :
  list_hydrogen ex_NG ex_NH = [3] /\ node_ids (fst (normalize_core ex_NG ex_NH)) = [1%N; 3%N; 5%N; 6%N] /\
  option_map g_hc (label (fst (normalize_core ex_NG ex_NH)) 1%N) = Some 3.
Proof. vm_compute. repeat split. Qed.
