(** C17 — proofs about the integer-scaling helpers (model/C17_IntLaws.v):
      limit_denominator returns a positive denominator within the bound and leaves small fractions alone;
      _vector_to_minimal_integer (outside its float-rounding fall-backs) returns a vector of the input's length that
      is either the zero vector (every entry within the tolerance) or has gcd 1 and is the vector of rational
      approximations scaled by ONE positive rational (den_lcm / g): a minimal integer vector, positively proportional
      to the approximations. *)
From Coq Require Import ZArith List Lia.
Import ListNotations.
From SK Require Import model.C17_IntLaws.
Local Open Scope Z_scope.

Lemma ld_loop_inv maxd : 1 <= maxd -> forall fuel p0 q0 p1 q1 n d,
  0 <= q0 <= maxd -> 1 <= q1 <= maxd -> 0 <= d < n ->
  let '(_, q0', _, q1', _) := ld_loop fuel maxd p0 q0 p1 q1 n d in
  0 <= q0' <= maxd /\ 1 <= q1' <= maxd.
Proof.
  intros Hm. induction fuel as [|fuel IH]; intros p0 q0 p1 q1 n d H0 H1 Hd; simpl; auto.
  destruct (d =? 0) eqn:Ed; auto.
  apply Z.eqb_neq in Ed.
  destruct (maxd <? q0 + n / d * q1) eqn:Eq; auto.
  apply Z.ltb_ge in Eq.
  assert (Ha : 1 <= n / d).
  { apply Z.div_le_lower_bound; lia. }
  apply IH.
  - lia.
  - split; [nia|lia].
  - assert (Hmod := Z.mod_pos_bound n d ltac:(lia)).
    replace (n - n / d * d) with (n mod d) by (rewrite Z.mod_eq by lia; lia). lia.
Qed.

Lemma ld_fuel_pos den : exists f, ld_fuel den = S f.
Proof.
  unfold ld_fuel. pose proof (Z.log2_up_nonneg den).
  exists (Z.to_nat (2 * Z.log2_up den + 3)). rewrite <- Z2Nat.inj_succ by lia. f_equal. lia.
Qed.

Lemma ld_first f maxd num den : 1 <= maxd -> maxd < den ->
  ld_loop (S f) maxd 0 1 1 0 num den = ld_loop f maxd 1 0 (num / den) 1 den (num mod den).
Proof.
  intros Hm Hd. cbn [ld_loop]. cbv zeta.
  rewrite (proj2 (Z.eqb_neq den 0)) by lia.
  rewrite Z.mul_0_r, Z.mul_1_r, Z.add_0_r, Z.add_0_l, (proj2 (Z.ltb_ge maxd 1)) by lia.
  now rewrite Z.mod_eq, (Z.mul_comm den) by lia.
Qed.

(** the second candidate q0 + k q1 with k = (maxd - q0) // q1: within the bound by the choice of k, and positive
    because either q0 > 0 or k >= 1 *)
Lemma ld_semiconvergent_bound maxd q0 q1 : 0 <= q0 <= maxd -> 1 <= q1 <= maxd ->
  0 < q0 + (maxd - q0) / q1 * q1 <= maxd.
Proof.
  intros H0 H1. set (k := (maxd - q0) / q1).
  assert (Hk0 : 0 <= k) by (apply Z.div_pos; lia).
  assert (Hk1 : k * q1 <= maxd - q0) by (unfold k; rewrite Z.mul_comm; apply Z.mul_div_le; lia).
  split; [|lia]. destruct (Z.eq_dec q0 0) as [->|Hq0]; [|nia].
  assert (1 <= k) by (apply Z.div_le_lower_bound; lia). nia.
Qed.

Lemma limit_denominator_bound maxd x : 1 <= maxd -> 0 < snd x ->
  0 < snd (limit_denominator maxd x) <= maxd.
Proof.
  intros Hm Hx. destruct x as [num den]. cbn [snd] in Hx. unfold limit_denominator.
  destruct (den <=? maxd) eqn:E; [apply Z.leb_le in E; cbn [snd]; lia|].
  apply Z.leb_gt in E.
  destruct (ld_fuel_pos den) as [f ->]. rewrite ld_first by lia.
  pose proof (ld_loop_inv maxd Hm f 1 0 (num / den) 1 den (num mod den)) as HI.
  destruct (ld_loop f maxd 1 0 (num / den) 1 den (num mod den)) as [[[[p0 q0] p1] q1] d].
  destruct HI as [H0 H1]; [lia | lia | apply Z.mod_pos_bound; lia |].
  pose proof (ld_semiconvergent_bound maxd q0 q1 H0 H1).
  destruct (_ <=? den); cbn [snd]; lia.
Qed.

Lemma limit_denominator_exact maxd x : snd x <= maxd -> limit_denominator maxd x = x.
Proof.
  intros H. destruct x as [num den]. simpl in H. unfold limit_denominator.
  replace (den <=? maxd) with true by (symmetry; now apply Z.leb_le). reflexivity.
Qed.

(** on non-zero arguments [_lcm] is the least common multiple *)
Lemma lcm_py_lcm a b : a <> 0 -> b <> 0 -> lcm_py a b = Z.lcm a b.
Proof.
  intros Ha Hb. unfold lcm_py, Z.lcm. rewrite (proj2 (Z.eqb_neq a 0) Ha), (proj2 (Z.eqb_neq b 0) Hb). simpl. f_equal.
  assert (Hg : Z.gcd a b <> 0) by (intros E; apply Z.gcd_eq_0_l in E; contradiction).
  rewrite (Z.mul_comm (a / _)), <- !Z.divide_div_mul_exact by auto using Z.gcd_divide_l, Z.gcd_divide_r.
  now rewrite (Z.mul_comm b).
Qed.

Lemma lcm_py_pos a b : 0 < a -> 0 < b ->
  0 < lcm_py a b /\ (a | lcm_py a b) /\ (b | lcm_py a b).
Proof.
  intros Ha Hb. rewrite lcm_py_lcm by lia. split; [|split; [apply Z.divide_lcm_l | apply Z.divide_lcm_r]].
  pose proof (Z.lcm_nonneg a b). pose proof (Z.lcm_eq_0 a b). lia.
Qed.

Lemma lcm_loop_spec dens : forall acc, 0 < acc -> Forall (fun d => 0 < d) dens ->
  0 < lcm_loop acc dens /\ (acc | lcm_loop acc dens) /\
  (lcm_loop acc dens <= MAXD -> Forall (fun d => (d | lcm_loop acc dens)) dens).
Proof.
  induction dens as [|d dens IH]; intros acc Hacc Hpos; simpl.
  - split; [lia|]. split; [apply Z.divide_refl|]. constructor.
  - inversion Hpos as [|? ? Hd Hrest]; subst.
    destruct (lcm_py_pos acc d Hacc Hd) as (L0 & L1 & L2).
    destruct (MAXD <? lcm_py acc d) eqn:E.
    + split; [lia|]. split; [exact L1|]. apply Z.ltb_lt in E. lia.
    + destruct (IH (lcm_py acc d) L0 Hrest) as (I0 & I1 & I2).
      split; [exact I0|]. split; [eapply Z.divide_trans; eauto|].
      intros Hle. constructor; [eapply Z.divide_trans; eauto|auto].
Qed.

(** [gcd_list] with an arbitrary start value, for the inductions *)
Definition gfold (l : list Z) (g0 : Z) : Z := fold_left (fun g v => Z.gcd g (Z.abs v)) l g0.

Lemma gcd_list_gfold l : gcd_list l = gfold l 0.
Proof. reflexivity. Qed.

Lemma gfold_divides l : forall g0, (gfold l g0 | g0) /\ Forall (fun v => (gfold l g0 | v)) l.
Proof.
  induction l as [|v l IH]; intros g0; simpl.
  - split; [apply Z.divide_refl|constructor].
  - destruct (IH (Z.gcd g0 (Z.abs v))) as [H1 H2]. unfold gfold in *. simpl. split.
    + eapply Z.divide_trans; [exact H1|apply Z.gcd_divide_l].
    + constructor; auto.
      apply Z.divide_abs_r. eapply Z.divide_trans; [exact H1|apply Z.gcd_divide_r].
Qed.

Lemma gfold_scale c l : 0 <= c -> forall g0, gfold (map (Z.mul c) l) (c * g0) = c * gfold l g0.
Proof.
  intros Hc. induction l as [|v l IH]; intros g0; [reflexivity|]. unfold gfold in *. simpl.
  rewrite Z.abs_mul, (Z.abs_eq c), Z.gcd_mul_mono_l_nonneg by assumption. apply IH.
Qed.

Lemma gfold_nonneg l : forall g0, 0 <= g0 -> 0 <= gfold l g0.
Proof.
  induction l as [|v l IH]; intros g0 H; simpl; auto. unfold gfold. simpl. apply IH. apply Z.gcd_nonneg.
Qed.

Lemma gcd_list_divides l : Forall (fun v => (gcd_list l | v)) l.
Proof. rewrite gcd_list_gfold. apply gfold_divides. Qed.

Lemma gcd_list_nonneg l : 0 <= gcd_list l.
Proof. rewrite gcd_list_gfold. apply gfold_nonneg, Z.le_refl. Qed.

(** dividing a vector by the gcd g of its entries leaves a vector of gcd 1: the vector is g times the quotients, so g = g * their gcd *)
Lemma gcd_list_div l : gcd_list l <> 0 -> gcd_list (map (fun v => v / gcd_list l) l) = 1.
Proof.
  intros Hg. set (g := gcd_list l) in *.
  assert (E : map (Z.mul g) (map (fun v => v / g) l) = l).
  { rewrite map_map. erewrite map_ext_in; [apply map_id|]. intros v Hv.
    destruct (proj1 (Forall_forall _ _) (gcd_list_divides l) v Hv) as [c ->]. fold g. rewrite Z.div_mul by exact Hg. apply Z.mul_comm. }
  pose proof (gfold_scale g (map (fun v => v / g) l) (gcd_list_nonneg l) 0) as S. rewrite Z.mul_0_r, E, <- !gcd_list_gfold in S.
  apply (Z.mul_reg_l _ _ g Hg). rewrite Z.mul_1_r. symmetry. exact S.
Qed.

Lemma approx_den_pos tol x : 0 < snd x -> 0 < snd (approx tol x) <= MAXD.
Proof.
  intros Hx. unfold approx. destruct (abs_le x tol); [simpl; unfold MAXD; lia|].
  apply limit_denominator_bound; auto. unfold MAXD. lia.
Qed.

Theorem min_int_vec_length tol vec out : min_int_vec tol vec = Some out -> length out = length vec.
Proof.
  unfold min_int_vec. destruct (forallb _ vec).
  - intros [= <-]. apply map_length.
  - destruct (MAXD <? _); [discriminate|]. destruct (_ =? 0); [discriminate|].
    intros [= <-]. now rewrite !map_length.
Qed.

Lemma scaled_entry L g p q : 0 < q -> 0 < g -> (q | L) -> (g | p * (L / q)) -> p * (L / q) / g * g * q = p * L.
Proof.
  intros Hq Hg [e ->] [c Ec]. rewrite Z.div_mul in * by lia. rewrite Ec, Z.div_mul, <- Ec by lia. ring.
Qed.

Lemma Forall2_map_self {A B} (R : B -> A -> Prop) (h : A -> B) l : Forall (fun x => R (h x) x) l -> Forall2 R (map h l) l.
Proof. induction 1; simpl; constructor; auto. Qed.

(** outside the fall-backs: the zero vector exactly when every entry is within the tolerance; otherwise gcd 1 and
    out_i * g * q_i = p_i * L for the approximations p_i / q_i, with ONE pair of positive integers (L, g) *)
Theorem min_int_vec_spec tol vec out :
  Forall (fun x => 0 < snd x) vec ->
  min_int_vec tol vec = Some out ->
  (forallb (fun x => abs_le x tol) vec = true /\ out = map (fun _ => 0) vec) \/
  (forallb (fun x => abs_le x tol) vec = false /\
   gcd_list out = 1 /\
   exists L g, 0 < L <= MAXD /\ 0 < g /\
     Forall2 (fun o f => o * g * snd f = fst f * L) out (map (approx tol) vec)).
Proof.
  intros Hpos. unfold min_int_vec. destruct (forallb (fun x => abs_le x tol) vec) eqn:Ez.
  - intros [= <-]. left. auto.
  - set (fracs := map (approx tol) vec). set (L := lcm_loop 1 (map snd fracs)).
    destruct (MAXD <? L) eqn:EL; [discriminate|]. apply Z.ltb_ge in EL.
    set (ints := map (fun f => fst f * (L / snd f)) fracs). set (g := gcd_list ints).
    destruct (g =? 0) eqn:Eg; [discriminate|]. apply Z.eqb_neq in Eg.
    intros [= <-]. right. split; [reflexivity|]. split; [apply gcd_list_div, Eg|].
    assert (Hden : Forall (fun f => 0 < snd f) fracs).
    { unfold fracs. rewrite Forall_map. eapply Forall_impl; [|exact Hpos]. intros x Hx. now apply approx_den_pos. }
    destruct (lcm_loop_spec (map snd fracs) 1 Z.lt_0_1) as (HL0 & _ & HLd); [now rewrite Forall_map|]. fold L in HL0, HLd.
    specialize (HLd EL). rewrite Forall_map in HLd.
    assert (Hg : 0 < g) by (pose proof (gcd_list_nonneg ints) as Hn; fold g in Hn; lia).
    pose proof (gcd_list_divides ints) as Hgi. fold g in Hgi. unfold ints in Hgi. rewrite Forall_map in Hgi.
    exists L, g. split; [lia|]. split; [exact Hg|].
    unfold ints. rewrite map_map. apply Forall2_map_self. rewrite Forall_forall in *.
    intros f If. apply scaled_entry; auto.
Qed.

Theorem int_laws_columns tol cols : length (int_laws tol cols) = length cols /\
  forall k col, nth_error cols k = Some col -> nth_error (int_laws tol cols) k = Some (min_int_vec tol col).
Proof.
  unfold int_laws. split; [apply map_length|]. intros k col H. now apply map_nth_error.
Qed.

(** the float nearest to 1/3 is approximated by 1/3; 0.5 stays; (1/3, -2/3, 1e-17) with tol 1e-9 scales to (1, -2, 0) *)
Definition f_third : frac := (6004799503160661, 18014398509481984).
Definition f_mtwothirds : frac := (-6004799503160661, 9007199254740992).
Definition f_tiny : frac := (1, 100000000000000000).
Definition f_tol : frac := (1, 1000000000).

Example limit_denominator_examples :
  limit_denominator MAXD f_third = (1, 3) /\ limit_denominator MAXD (1, 2) = (1, 2) /\
  limit_denominator MAXD f_mtwothirds = (-2, 3) /\
  limit_denominator 10 (314159, 100000) = (22, 7).
Proof. vm_compute. repeat split; reflexivity. Qed.

Example min_int_vec_examples :
  min_int_vec f_tol [f_third; f_mtwothirds; f_tiny] = Some [1; -2; 0] /\
  min_int_vec f_tol [f_tiny; (0, 1)] = Some [0; 0] /\
  min_int_vec f_tol [(1, 2); (1, 4); (3, 4)] = Some [2; 1; 3] /\
  min_int_vec f_tol [(1, 999983); (1, 2)] = None /\                 (* lcm of the denominators above 10^6: the first fall-back *)
  min_int_vec f_tol [(1, 3000000); (1, 5000000)] = None.           (* every approximation is 0: the second fall-back *)
Proof. vm_compute. repeat split; reflexivity. Qed.
