(** C19 — every linkage-class deficiency is >= 0: the exact rank of a class's difference vectors is at most (class size - 1).
    proof/C19_RankMC.rank_complex_bound applied to the arcs inside one class, with the outside vertices as singleton
    classes (MathComp style; index facts from proof/C19_ClassBridge.v). *)
From mathcomp Require Import ssreflect ssrfun ssrbool eqtype ssrnat seq fintype bigop ssralg matrix mxalgebra rat.
From mathcomp Require Import ssrZ zify.
From Coq Require Import ZArith.
From SK Require Import lib.RankBridge proof.C19_RankMC proof.C19_Rank.
Require SK.model.C17_Model SK.model.C19_Model.
Require SK.proof.C19_Bridge SK.proof.C19_ClassBridge.
Set Implicit Arguments. Unset Strict Implicit. Unset Printing Implicit Defensive.
Import GRing.Theory.
Local Open Scope ring_scope.

Section ClassRank.
Variables (net : seq C17_Model.rxn) (iso : seq C17_Model.str) (ci : nat).
Let cs := fst (C19_Model.complex_graph net iso).
Let arcs := snd (C19_Model.complex_graph net iso).
Let k := length cs.
Let L := C19_Model.linkage_classes arcs k.
Let c := List.nth ci L nil.
Let m := length (C17_Model.species_order net iso).
Let D := C19_Bridge.cdiffs net iso ci.
Let d := length D.
Let out := C19_ClassBridge.outside k c.
Let l2 := (length out).+1.
Hypothesis Hci : (ci < length L)%coq_nat.

Let facts := C19_ClassBridge.class_facts net iso ci Hci.
Let NDc : List.NoDup c := proj1 facts.
Let NEc : c <> nil := proj1 (proj2 facts).
Let MEMc := proj2 (proj2 facts).

Lemma cu_lt (t : 'I_d) : ((C19_ClassBridge.carc net iso ci t).1 < k)%nat.
Proof. by apply/ltP; apply: (proj1 (C19_ClassBridge.carc_spec net iso ci t _)); apply/ltP. Qed.
Lemma cv_lt (t : 'I_d) : ((C19_ClassBridge.carc net iso ci t).2 < k)%nat.
Proof. by apply/ltP; apply: (proj1 (proj2 (C19_ClassBridge.carc_spec net iso ci t _))); apply/ltP. Qed.
Lemma r2_lt (a : 'I_l2) : (C19_ClassBridge.rep2 k c a < k)%nat.
Proof. by apply/ltP; apply: (C19_ClassBridge.rep2_lt k c NDc NEc MEMc); apply/ltP. Qed.

Definition cuf (t : 'I_d) : 'I_k := Ordinal (cu_lt t).
Definition cvf (t : 'I_d) : 'I_k := Ordinal (cv_lt t).
Definition crep (a : 'I_l2) : 'I_k := Ordinal (r2_lt a).
Definition ccls (a : 'I_l2) (i : 'I_k) : bool := C19_ClassBridge.cls2 k c a i.

Lemma ccls_arc a t : ccls a (cuf t) = ccls a (cvf t).
Proof.
rewrite /ccls /=.
have td : (t < length (C19_Bridge.cdiffs net iso ci))%coq_nat by apply/ltP.
have [_ [_ [Iu [Iv _]]]] := C19_ClassBridge.carc_spec net iso ci t td.
exact: (C19_ClassBridge.cls2_inside k c MEMc).
Qed.

Lemma ccls_rep a b : ccls a (crep b) = (a == b).
Proof.
rewrite /ccls /= (C19_ClassBridge.cls2_rep k c NDc NEc MEMc); try by apply/ltP.
exact: eqb_ord.
Qed.

Lemma cS_entry (i : 'I_m) (t : 'I_d) : (toM d m D)^T i t = Ym net iso i (cvf t) - Ym net iso i (cuf t).
Proof.
rewrite !mxE getz_list -zrB /=; congr (zr _).
by apply: C19_ClassBridge.cdiffs_entry; apply/ltP.
Qed.

(** exact rank of the class's difference vectors + 1 <= size of the class *)
Theorem class_rank_bound : (\rank (toM d m D) + 1 <= length c)%nat.
Proof.
have B := rank_complex_bound ccls_arc ccls_rep cS_entry.
rewrite mxrank_tr in B.
have E := C19_ClassBridge.outside_length k c NDc MEMc.
rewrite -/out in E. move: B; rewrite /l2. lia.
Qed.
End ClassRank.

(** the same with the standard library's order and addition *)
Theorem class_rank_bound_le net iso ci :
  let cs := fst (C19_Model.complex_graph net iso) in
  let arcs := snd (C19_Model.complex_graph net iso) in
  let L := C19_Model.linkage_classes arcs (length cs) in
  let m := length (C17_Model.species_order net iso) in
  let D := C19_Model.class_diffs cs arcs (List.nth ci L nil) in
  (ci < length L)%coq_nat ->
  Peano.le (Nat.add (\rank (toM (length D) m D)) 1) (length (List.nth ci L nil)).
Proof.
move=> cs arcs L m D H; apply/leP; rewrite plusE.
exact: (@class_rank_bound net iso ci H).
Qed.

(** every linkage-class deficiency is non-negative (all ranks exact) *)
Theorem class_deficiency_nonneg net iso (rc : C17_Model.rcert) (ccs : seq C17_Model.rcert) ci :
  C19_Model.certs_ok net iso rc ccs = true ->
  let L := C19_Model.linkage_classes (snd (C19_Model.complex_graph net iso)) (length (fst (C19_Model.complex_graph net iso))) in
  (ci < length L)%coq_nat ->
  (0 <= List.nth ci (C19_Model.linkage_deficiencies L (List.map C17_Model.rc_r ccs)) 0%Z)%Z.
Proof.
move=> ok L Hci.
rewrite (class_deficiency_exact ok Hci).
have := @class_rank_bound net iso ci Hci.
lia.
Qed.
Print Assumptions class_deficiency_nonneg.
