(** C02 — longest_radius_extension, all centre atoms: the search as a trace of (start atom, atoms excluded at that
    moment, path found); the result is the first longest path of the trace, and every path of the trace is a longest
    simple chain of unchanged bonds from its start atom among those avoiding the excluded atoms. *)
From Coq Require Import List NArith ZArith Bool Lia.
From SK Require Import lib.LGraph model.C01_Model model.C02_Model proof.C02_Proof proof.C02_Lre.
Import ListNotations.
Local Open Scope Z_scope.

Definition lre_fuel (g : its) : nat := S (length (gnodes g)).

(** the loop of longest_radius_extension over rc_nodes, recording every dfs call *)
Fixpoint lre_trace (g : its) (rcn vis : list N) : list (N * list N * list N) :=
  match rcn with
  | [] => []
  | n :: r =>
      if LGraph.mem n vis then lre_trace g r vis
      else let p := lre_dfs g (lre_fuel g) n vis [n] in (n, vis, p) :: lre_trace g r (p ++ vis)
  end.

Definition first_longest (ps : list (list N)) (best : list N) : list N :=
  fold_left (fun best p => if (length best <? length p)%nat then p else best) ps best.

Lemma lre_fold_trace (g : its) rcn : forall vis best,
  snd (fold_left (lre_step g) rcn (vis, best)) =
  first_longest (map snd (lre_trace g rcn vis)) best.
Proof.
  induction rcn as [|n r IH]; intros vis best; [reflexivity|]. cbn [fold_left lre_trace]. unfold lre_step at 2.
  destruct (LGraph.mem n vis); [apply IH|]. cbn [map snd first_longest fold_left]. unfold lre_fuel. rewrite IH. reflexivity.
Qed.

Theorem lre_is_first_longest (g : its) rcn : lre g rcn = first_longest (map snd (lre_trace g rcn [])) [].
Proof. rewrite lre_as_fold. apply lre_fold_trace. Qed.

Lemma first_longest_ge ps : forall best p, In p ps \/ p = best -> (length p <= length (first_longest ps best))%nat.
Proof.
  induction ps as [|q ps IH]; intros best p H; simpl.
  - destruct H as [[]| ->]. lia.
  - unfold first_longest in *. simpl. destruct (Nat.ltb_spec (length best) (length q)).
    + destruct H as [[<-|I]| ->].
      * apply IH. right. reflexivity.
      * apply IH. left. exact I.
      * etransitivity; [|apply (IH q q); right; reflexivity]. lia.
    + destruct H as [[<-|I]| ->].
      * etransitivity; [|apply (IH best best); right; reflexivity]. lia.
      * apply IH. left. exact I.
      * apply IH. right. reflexivity.
Qed.

(** every recorded call starts in a centre atom that is not excluded, and the excluded atoms are the atoms of the paths
    recorded before *)
Lemma lre_trace_entries (g : its) rcn : forall vis n v p, In (n, v, p) (lre_trace g rcn vis) ->
  In n rcn /\ ~ In n v /\ p = lre_dfs g (lre_fuel g) n v [n] /\ (forall x, In x vis -> In x v).
Proof.
  induction rcn as [|m r IH]; intros vis n v p I; [destruct I|]. cbn [lre_trace] in I.
  destruct (LGraph.mem m vis) eqn:M.
  - destruct (IH vis n v p I) as (A & B & C & D). repeat split; auto. right. exact A.
  - destruct I as [E|I].
    + inversion E; subst. repeat split; auto; [left; reflexivity|]. intros J. apply LGraph.mem_spec in J. congruence.
    + destruct (IH _ n v p I) as (A & B & C & D). repeat split; auto; [right; exact A|].
      intros x J. apply D, in_or_app. right. exact J.
Qed.

(** a centre atom that starts no recorded call was already on an earlier path *)
Lemma lre_trace_covers (g : its) rcn : forall vis n, In n rcn ->
  In n vis \/ exists v p, In (n, v, p) (lre_trace g rcn vis) \/
                          (exists m v' p', In (m, v', p') (lre_trace g rcn vis) /\ In n p').
Proof.
  induction rcn as [|m r IH]; intros vis n I; [destruct I|]. cbn [lre_trace].
  destruct (LGraph.mem m vis) eqn:M.
  - destruct I as [<-|I]; [left; apply LGraph.mem_spec; exact M|].
    destruct (IH vis n I) as [J|(v & p & H)]; [left; exact J|right; exists v, p; exact H].
  - destruct I as [<-|I].
    + right. exists vis, (lre_dfs g (lre_fuel g) m vis [m]). left. left. reflexivity.
    + destruct (IH (lre_dfs g (lre_fuel g) m vis [m] ++ vis) n I) as [J|(v & p & [H|(m' & v' & p' & H & Hp)])].
      * apply in_app_iff in J. destruct J as [J|J]; [|left; exact J].
        right. exists vis, (lre_dfs g (lre_fuel g) m vis [m]). right. exists m, vis, (lre_dfs g (lre_fuel g) m vis [m]).
        split; [left; reflexivity|exact J].
      * right. exists v, p. left. right. exact H.
      * right. exists v', p'. right. exists m', v', p'. split; [right; exact H|exact Hp].
Qed.

(** the main statement: each recorded path is a longest simple chain of unchanged bonds from its start atom that avoids
    the atoms excluded at that moment, and the result is at least as long as every recorded path *)
Theorem lre_trace_longest (g : its) (rcn : list N) : wf g -> (forall n, In n rcn -> In n (node_ids g)) ->
  forall n v p, In (n, v, p) (lre_trace g rcn []) ->
  (length p <= length (lre g rcn))%nat /\
  forall ext, zchain g n ext -> NoDup (n :: ext) -> (forall x, In x ext -> ~ In x v) ->
              (length (n :: ext) <= length p)%nat.
Proof.
  intros W Hin n v p I. split.
  - rewrite lre_is_first_longest. apply first_longest_ge. left. apply in_map_iff. exists (n, v, p). auto.
  - intros ext Hz Hnd Hdis. destruct (lre_trace_entries g rcn [] n v p I) as (In_ & Hnv & -> & _).
    inversion Hnd as [|? ? Hni Hnd']; subst.
    assert (length (n :: ext) <= length (gnodes g))%nat as Hlen.
    { rewrite <- (map_length fst (gnodes g)). apply NoDup_incl_length; [exact Hnd|].
      intros x [<-|J]; [apply Hin; exact In_|]. exact (zchain_nodes g W ext n (Hin n In_) Hz x J). }
    change (length (n :: ext)) with (length [n] + length ext)%nat. apply lre_dfs_len_ge; auto.
    + intros x J [<-|K]; [contradiction|]. exact (Hdis x J K).
    + unfold lre_fuel. simpl in Hlen. lia.
Qed.

(** non-vacuity: ex_its, centre atoms [1;2;3;4;8]: atom 1 finds 1-5-6-7; 2 and 3 find only themselves; 4 finds 4-8;
    8 is then excluded and starts no call *)
Example C02_lre_trace_nonvacuous :
  map (fun e => (fst (fst e), snd e)) (lre_trace ex_its (node_ids (get_rc ex_its)) []) =
  [(1, [1; 5; 6; 7]); (2, [2]); (3, [3]); (4, [4; 8])]%N /\
  lre ex_its (node_ids (get_rc ex_its)) = [1; 5; 6; 7]%N.
Proof. vm_compute. split; reflexivity. Qed.
