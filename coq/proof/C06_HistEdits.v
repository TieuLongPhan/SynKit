(** C06 — what the in-place edits of model/C06_Hist.v do (networkx semantics, stated pointwise):
    the edited entry has the new value, everything else is as before. *)
From Coq Require Import List NArith Bool Arith Lia.
From SK Require Import lib.LGraph lib.C01_GraphLemmas model.C06_Model model.C06_Attrs model.C06_Hist proof.C06_Attrs proof.C06_Hist.
Import ListNotations.

Lemma label_map_node (g : rgraph) u f x :
  label (map_node u f g) x = if N.eqb x u then option_map f (label g x) else label g x.
Proof.
  unfold label, map_node. simpl. induction (gnodes g) as [|[k l] r IH]; simpl.
  - destruct (N.eqb x u); reflexivity.
  - destruct (N.eqb_spec k u) as [->|Hku]; simpl.
    + destruct (N.eqb_spec x u) as [->|Hxu]; [reflexivity|exact IH].
    + destruct (N.eqb_spec x k) as [->|Hxk].
      * destruct (N.eqb_spec k u); [contradiction|reflexivity].
      * exact IH.
Qed.

Lemma node_ids_map_node (g : rgraph) u f : node_ids (map_node u f g) = node_ids g.
Proof.
  unfold node_ids, map_node. simpl. rewrite map_map. apply map_ext. intros [k l]. simpl.
  destruct (N.eqb k u); reflexivity.
Qed.

(** [g.nodes[u][k] = v] *)
Theorem set_node_attr_spec (g : rgraph) u k v n :
  let g' := apply_edit (ESetNodeAttr u k v n) g in
  node_ids g' = node_ids g /\ gedges g' = gedges g /\
  (In u (node_ids g) -> aget k (fst (rlab g' u)) = v) /\
  (forall x k', x <> u \/ k' <> k -> aget k' (fst (rlab g' x)) = aget k' (fst (rlab g x))) /\
  (forall x, x <> u \/ k <> HCOUNT_KEY -> hc (rlab g' x) = hc (rlab g x)) /\
  (In u (node_ids g) -> k = HCOUNT_KEY -> hc (rlab g' u) = n).
Proof.
  cbv zeta. cbn [apply_edit]. split; [apply node_ids_map_node|split; [reflexivity|]].
  assert (Hl : forall x, rlab (map_node u (lab_set k v n) g) x =
                         if N.eqb x u then match label g x with Some l => lab_set k v n l | None => ([], None) end else rlab g x).
  { intros x. unfold rlab. rewrite label_map_node. destruct (N.eqb x u); [destruct (label g x); reflexivity|reflexivity]. }
  pose proof (@node_label_some _ _ g u) as Hin.
  split; [|split; [|split]].
  - intros Hu. destruct (Hin Hu) as (l & El). rewrite Hl, N.eqb_refl, El. simpl. apply aget_dict_set_same.
  - intros x k' Hd. rewrite Hl. destruct (N.eqb_spec x u) as [->|Hxu]; [|reflexivity].
    destruct Hd as [Hd|Hd]; [contradiction|].
    unfold rlab. destruct (label g u) as [l|]; [|reflexivity]. simpl. apply aget_dict_set_other. exact Hd.
  - intros x Hd. rewrite Hl. destruct (N.eqb_spec x u) as [->|Hxu]; [|reflexivity].
    destruct Hd as [Hd|Hd]; [contradiction|].
    unfold rlab. destruct (label g u) as [l|]; [|reflexivity]. unfold hc, lab_set. simpl.
    destruct (N.eqb_spec k HCOUNT_KEY); [contradiction|reflexivity].
  - intros Hu ->. destruct (Hin Hu) as (l & El). rewrite Hl, N.eqb_refl, El. unfold hc, lab_set. simpl. reflexivity.
Qed.

(** two unordered pairs are the same pair *)
Definition same_pair (a b x y : N) : Prop := (x = a /\ y = b) \/ (x = b /\ y = a).
Lemma joins_spec a b x y : joins a b x y = true <-> same_pair a b x y.
Proof. exact (match_pair_spec x y a b). Qed.

(** [g.remove_edge(a, b)] *)
Theorem remove_edge_spec (g : rgraph) a b :
  let g' := apply_edit (ERemoveEdge a b) g in
  gnodes g' = gnodes g /\
  LGraph.adj g' a b = None /\
  (forall x y, ~ same_pair a b x y -> LGraph.adj g' x y = LGraph.adj g x y) /\
  length (gedges g') <= length (gedges g).
Proof.
  cbv zeta. cbn [apply_edit]. split; [reflexivity|]. unfold LGraph.adj. simpl.
  split; [|split].
  - induction (gedges g) as [|[[x y] d] r IH]; simpl; [reflexivity|].
    destruct (joins a b x y) eqn:Ej; simpl; [exact IH|].
    unfold joins in Ej. rewrite Ej. exact IH.
  - intros x y Hn. induction (gedges g) as [|[[p q] d] r IH]; simpl; [reflexivity|].
    destruct (joins a b p q) eqn:Ej; simpl.
    + rewrite IH. apply joins_spec in Ej.
      change ((N.eqb p x && N.eqb q y) || (N.eqb p y && N.eqb q x)) with (joins x y p q).
      destruct (joins x y p q) eqn:E; [|reflexivity].
      exfalso. apply Hn. apply joins_spec in E. unfold same_pair in *.
      destruct Ej as [[-> ->]|[-> ->]], E as [[<- <-]|[<- <-]]; auto.
    + rewrite IH. reflexivity.
  - induction (gedges g) as [|e r IH]; simpl; [lia|]. destruct (let '(x, y, _) := e in negb (joins a b x y)); simpl; lia.
Qed.

(** [g.add_edge(a, b, **d)] between two existing nodes that are not joined yet *)
Theorem add_edge_spec (g : rgraph) a b d :
  LGraph.adj g a b = None -> In a (node_ids g) -> In b (node_ids g) ->
  let g' := apply_edit (EAddEdge a b d) g in
  gnodes g' = gnodes g /\
  LGraph.adj g' a b = Some d /\
  (forall x y, ~ same_pair a b x y -> LGraph.adj g' x y = LGraph.adj g x y) /\
  length (gedges g') = S (length (gedges g)).
Proof.
  intros Hadj Ha Hb. cbv zeta. cbn [apply_edit]. unfold LGraph.adj in Hadj. rewrite Hadj.
  assert (En : ensure_node b (ensure_node a (gnodes g)) = gnodes g).
  { unfold ensure_node. change (map fst (gnodes g)) with (node_ids g).
    rewrite (proj2 (LGraph.mem_spec a (node_ids g)) Ha).
    change (map fst (gnodes g)) with (node_ids g). rewrite (proj2 (LGraph.mem_spec b (node_ids g)) Hb). reflexivity. }
  split; [exact En|]. unfold LGraph.adj. simpl.
  pose proof (fun x y => find_edge_app x y (gedges g) [(a, b, d)]) as Happ.
  split; [|split].
  - rewrite Happ, Hadj. simpl. rewrite !N.eqb_refl. reflexivity.
  - intros x y Hn. rewrite Happ. destruct (find_edge x y (gedges g)); [reflexivity|]. simpl.
    change ((N.eqb a x && N.eqb b y) || (N.eqb a y && N.eqb b x)) with (joins x y a b).
    destruct (joins x y a b) eqn:E; [|reflexivity].
    exfalso. apply Hn. apply joins_spec in E. unfold same_pair in *.
    destruct E as [[<- <-]|[<- <-]]; auto.
  - rewrite app_length. simpl. lia.
Qed.

(** a bond moved in place keeps both counts (the validators a memo would typically use) *)
Corollary move_bond_counts (g : rgraph) a b c d0 :
  LGraph.adj (apply_edit (ERemoveEdge a b) g) b c = None -> In b (node_ids g) -> In c (node_ids g) ->
  let g' := apply_edit (EAddEdge b c d0) (apply_edit (ERemoveEdge a b) g) in
  gnodes g' = gnodes g /\ length (gedges g') <= S (length (gedges g)) /\ LGraph.adj g' b c = Some d0.
Proof.
  intros Hadj Hb Hc. cbv zeta.
  destruct (remove_edge_spec g a b) as (N1 & _ & _ & L1). cbv zeta in N1, L1.
  assert (Hb' : In b (node_ids (apply_edit (ERemoveEdge a b) g))) by (unfold node_ids; rewrite N1; exact Hb).
  assert (Hc' : In c (node_ids (apply_edit (ERemoveEdge a b) g))) by (unfold node_ids; rewrite N1; exact Hc).
  destruct (add_edge_spec _ b c d0 Hadj Hb' Hc') as (N2 & A2 & _ & L2). cbv zeta in N2, A2, L2.
  split; [rewrite N2; exact N1|split; [rewrite L2; lia|exact A2]].
Qed.

(** non-vacuity (host of proof/C06_Hist.v: chain 0-1-2, lone carbon 3) *)
Example ex_edit_specs :
  In 3%N (node_ids Hh) /\ aget 2 (fst (rlab (apply_edit (ESetNodeAttr 3 2 9 0) Hh) 3%N)) = 9%N /\
  hc (rlab (apply_edit (ESetNodeAttr 3 HCOUNT_KEY 4 2) Hh) 3%N) = 2%N /\
  LGraph.adj Hh 1%N 2%N <> None /\ LGraph.adj (apply_edit (ERemoveEdge 1 2) Hh) 2%N 1%N = None /\
  LGraph.adj (apply_edit (ERemoveEdge 1 2) Hh) 2%N 3%N = None /\
  LGraph.adj moved 3%N 2%N = Some [(3, 2)]%N /\ gnodes moved = gnodes Hh /\ length (gedges moved) = length (gedges Hh).
Proof. vm_compute. repeat split; try reflexivity; try discriminate. right. right. right. left. reflexivity. Qed.
