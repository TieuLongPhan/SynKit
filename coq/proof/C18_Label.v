(** C18 — the label string determines what it was computed from: decimal rendering, role / stoichiometry bits,
    the two '|'-joined segments.  Equal labels of two node sequences give equal lengths, position-wise equal kinds and
    position-wise equal arcs between distinct positions. *)
From Coq Require Import List NArith ZArith Bool Arith Lia Permutation.
From Coq Require String Ascii.
From SK Require Import lib.IRSortKeys lib.IRCore lib.IRSearch lib.StrJoin model.C18_Model proof.C18_Spec proof.C18_Graph.
Import ListNotations.

Definition stepR (c : N) (vw : N * N) : N * N := ((fst vw + (c - 48) * snd vw)%N, (10 * snd vw)%N).
Definition rval (l : list N) : N * N := fold_right stepR (0%N, 1%N) l.

Lemma digits_rval fuel : forall n acc, (n < 10 ^ N.of_nat fuel)%N ->
  fst (rval (digits fuel n acc)) = (fst (rval acc) + n * snd (rval acc))%N.
Proof.
  induction fuel as [|f IH]; intros n acc Hn.
  - simpl in *. assert (n = 0%N) by lia. subst. lia.
  - cbn [digits]. cbv zeta.
    assert (Hd : rval ((48 + n mod 10)%N :: acc) = ((fst (rval acc) + (n mod 10) * snd (rval acc))%N, (10 * snd (rval acc))%N)).
    { change (rval ((48 + n mod 10)%N :: acc)) with (stepR (48 + n mod 10)%N (rval acc)). unfold stepR.
      rewrite (N.add_comm 48), N.add_sub. reflexivity. }
    pose proof (N.div_mod n 10 ltac:(lia)) as Hdm.
    pose proof (N.mod_upper_bound n 10 ltac:(lia)) as Hm.
    rewrite Nat2N.inj_succ, N.pow_succ_r' in Hn.
    remember (n mod 10)%N as m. remember (n / 10)%N as d. remember (10 ^ N.of_nat f)%N as B.
    destruct (N.eqb_spec d 0) as [E|E].
    + rewrite Hd. cbn [fst snd]. subst d. rewrite E in Hdm. replace m with n by lia. reflexivity.
    + rewrite IH.
      * rewrite Hd. cbn [fst snd]. set (w := snd (rval acc)) in *. set (v := fst (rval acc)) in *. rewrite Hdm. ring.
      * lia.
Qed.

Lemma dec_fuel n : (n < 10 ^ N.of_nat (S (N.to_nat (N.log2 n))))%N.
Proof.
  rewrite Nat2N.inj_succ, N2Nat.id.
  destruct (N.eq_dec n 0) as [->|Hn]; [simpl; lia|].
  destruct (N.log2_spec n ltac:(lia)) as [_ H].
  eapply N.lt_le_trans; [exact H|]. apply N.pow_le_mono_l. lia.
Qed.
Lemma dec_rval n : fst (rval (dec n)) = n.
Proof. unfold dec. rewrite digits_rval; [simpl; lia|apply dec_fuel]. Qed.
Lemma dec_inj n m : dec n = dec m -> n = m.
Proof. intros E. rewrite <- (dec_rval n), <- (dec_rval m), E. reflexivity. Qed.

Definition digitc (c : N) : Prop := (48 <= c < 58)%N.
Lemma digits_props fuel : forall n acc, Forall digitc acc ->
  Forall digitc (digits fuel n acc) /\ length acc <= length (digits fuel n acc) /\
  (fuel <> 0 -> length acc < length (digits fuel n acc)).
Proof.
  induction fuel as [|f IH]; intros n acc Ha; simpl.
  { split; [exact Ha|]. split; [apply le_n|intros H; contradiction]. }
  assert (Ha' : Forall digitc ((48 + n mod 10)%N :: acc)).
  { constructor; auto. split; [apply N.le_add_r|]. apply (N.add_lt_mono_l _ 10 48), N.mod_upper_bound. discriminate. }
  destruct (N.eqb (n / 10) 0).
  - split; [exact Ha'|]. split; [apply Nat.le_succ_diag_r|intros _; apply Nat.lt_succ_diag_r].
  - destruct (IH (n / 10)%N _ Ha') as (H1 & H2 & _). simpl in H2.
    split; [exact H1|]. split; [apply Nat.lt_le_incl, H2|intros _; exact H2].
Qed.
Lemma dec_digits n : Forall digitc (dec n).
Proof. apply digits_props. constructor. Qed.
Lemma dec_nonnil n : dec n <> [].
Proof.
  unfold dec. destruct (digits_props (S (N.to_nat (N.log2 n))) n [] (Forall_nil _)) as (_ & _ & H).
  intro E. rewrite E in H. simpl in H. specialize (H ltac:(discriminate)). lia.
Qed.

Definition attr_ok (a : eattr) : Prop := (fst a = -1 \/ fst a = 0 \/ fst a = 1)%Z /\ (-1 <= snd a)%Z.

Lemma st_str_inj s s' : (-1 <= s)%Z -> (-1 <= s')%Z -> st_str s = st_str s' -> s = s'.
Proof.
  unfold st_str. intros H H'. destruct (Z.ltb_spec s 0), (Z.ltb_spec s' 0); intros E.
  - lia.
  - exfalso. symmetry in E. apply dec_nonnil in E. auto.
  - exfalso. apply dec_nonnil in E. auto.
  - apply dec_inj in E. lia.
Qed.

Lemma role_product : role_str 0 = [112;114;111;100;117;99;116]%N. Proof. reflexivity. Qed.
Lemma role_reactant : role_str 1 = [114;101;97;99;116;97;110;116]%N. Proof. reflexivity. Qed.
Lemma role_none : role_str (-1) = []. Proof. reflexivity. Qed.

Lemma attr_str_inj a b : attr_ok a -> attr_ok b ->
  role_str (fst a) ++ [COLON] ++ st_str (snd a) = role_str (fst b) ++ [COLON] ++ st_str (snd b) -> a = b.
Proof.
  destruct a as [r s], b as [r' s']. unfold attr_ok. simpl. intros [Hr Hs] [Hr' Hs'] E.
  destruct Hr as [-> | [-> | ->]], Hr' as [-> | [-> | ->]];
    rewrite ?role_product, ?role_reactant, ?role_none in E; simpl in E; try discriminate;
    f_equal; apply st_str_inj; auto; congruence.
Qed.

Definition arcs_ok (g : vgraph) : Prop := forall e, In e (varcs g) -> attr_ok (aattr e).
Definition kinds_ok (g : vgraph) : Prop := forall p, In p (vnodes g) -> snd p = KREACTION \/ snd p = KSPECIES.

Lemma find_arc_ok g u v a : arcs_ok g -> find_arc g u v = Some a -> attr_ok a.
Proof. intros H E. apply find_arc_l_some in E. apply (H _ E). Qed.

Lemma bit_inj g a b a' b' : arcs_ok g -> bit g a b = bit g a' b' -> find_arc g a b = find_arc g a' b'.
Proof.
  intros Hok. unfold bit.
  destruct (find_arc g a b) as [[r s]|] eqn:E1, (find_arc g a' b') as [[r' s']|] eqn:E2; simpl; intros E; try discriminate; auto.
  f_equal. inversion E as [E']. apply (attr_str_inj (r, s) (r', s')); auto.
  - eapply find_arc_ok; eauto.
  - eapply find_arc_ok; eauto.
Qed.

Lemma codes_nosep (s : String.string) : forallb (fun c => negb (N.eqb c BAR)) (codes s) = true -> nosep BAR (codes s).
Proof.
  intros H I. rewrite forallb_forall in H. specialize (H _ I). rewrite N.eqb_refl in H. discriminate.
Qed.
Lemma digit_nosep l : Forall digitc l -> nosep BAR l.
Proof. intros H I. rewrite Forall_forall in H. specialize (H _ I). unfold digitc, BAR in H. lia. Qed.
Lemma st_str_nosep s : nosep BAR (st_str s).
Proof. unfold st_str. destruct (Z.ltb s 0); [intros []|]. apply digit_nosep. apply dec_digits. Qed.
Lemma role_str_nosep r : nosep BAR (role_str r).
Proof.
  unfold role_str. destruct (Z.eqb r RPRODUCT); [apply codes_nosep; reflexivity|].
  destruct (Z.eqb r RREACTANT); [apply codes_nosep; reflexivity|intros []].
Qed.
Lemma nosep_app sep a b : nosep sep a -> nosep sep b -> nosep sep (a ++ b).
Proof. unfold nosep. intros Ha Hb I. apply in_app_or in I. tauto. Qed.
Lemma bit_nosep g a b : nosep BAR (bit g a b).
Proof.
  unfold bit. destruct (find_arc g a b) as [[r s]|].
  - apply (nosep_app BAR [49%N; COLON]); [intros [E|[E|[]]]; discriminate|].
    apply nosep_app; [apply role_str_nosep|]. apply (nosep_app BAR [COLON]); [intros [E|[]]; discriminate|apply st_str_nosep].
  - intros [E|[E|[E|[]]]]; discriminate.
Qed.
Lemma bit_nonnil g a b : bit g a b <> [].
Proof. unfold bit. destruct (find_arc g a b) as [[r s]|]; discriminate. Qed.

Lemma kind_str_inj k k' : (k = KREACTION \/ k = KSPECIES) -> (k' = KREACTION \/ k' = KSPECIES) -> kind_str k = kind_str k' -> k = k'.
Proof. intros [-> | ->] [-> | ->]; auto; intros E; vm_compute in E; discriminate. Qed.
Lemma kind_str_nosep k : nosep BAR (kind_str k).
Proof.
  unfold kind_str. destruct (Z.eqb k KREACTION); [apply codes_nosep; reflexivity|].
  destruct (Z.eqb k KSPECIES); [apply codes_nosep; reflexivity|intros []].
Qed.
Lemma kind_str_nonnil k : (k = KREACTION \/ k = KSPECIES) -> kind_str k <> [].
Proof. intros [-> | ->]; vm_compute; discriminate. Qed.

(* ---------------- the two segments ---------------- *)
Definition piece (x : list N) : Prop := nosep BAR x /\ x <> [].

Lemma join_head sep (y : list N) ys : exists t, join sep (y :: ys) = y ++ t.
Proof. destruct ys as [|y2 ys]; [exists []; simpl; rewrite app_nil_r; auto|exists (sep :: join sep (y2 :: ys)); reflexivity]. Qed.

Lemma piece_not_bar y t b : piece y -> (BAR :: b = y ++ t) -> False.
Proof.
  intros [Hn Hne] E. destruct y as [|c y]; [congruence|]. simpl in E. inversion E; subst. apply Hn. left. reflexivity.
Qed.

Definition rtail (xs : list (list N)) (b : list N) : list N :=
  match xs with [] => BAR :: b | _ => join BAR xs ++ [BAR; BAR] ++ b end.
Lemma seg_cons x xs b : join BAR (x :: xs) ++ [BAR; BAR] ++ b = x ++ BAR :: rtail xs b.
Proof. destruct xs as [|x2 xs]; simpl; auto. rewrite <- app_assoc. reflexivity. Qed.

Lemma join_pieces_not_bar y ys t b : piece y -> BAR :: b = join BAR (y :: ys) ++ t -> False.
Proof. intros Py E. destruct (join_head BAR y ys) as (t' & Et). rewrite Et, <- app_assoc in E. eapply piece_not_bar; eauto. Qed.

Lemma rtail_inj xs : forall ys b b', Forall piece xs -> Forall piece ys -> rtail xs b = rtail ys b' -> xs = ys /\ b = b'.
Proof.
  induction xs as [|x xs IH]; intros [|y ys] b b' Hx Hy E.
  - simpl in E. inversion E. auto.
  - exfalso. exact (join_pieces_not_bar y ys _ _ (Forall_inv Hy) E).
  - exfalso. symmetry in E. exact (join_pieces_not_bar x xs _ _ (Forall_inv Hx) E).
  - pose proof (Forall_inv Hx) as Px. pose proof (Forall_inv Hy) as Py.
    pose proof (Forall_inv_tail Hx) as Hx'. pose proof (Forall_inv_tail Hy) as Hy'.
    change (rtail (x :: xs) b) with (join BAR (x :: xs) ++ [BAR; BAR] ++ b) in E.
    change (rtail (y :: ys) b') with (join BAR (y :: ys) ++ [BAR; BAR] ++ b') in E.
    rewrite !seg_cons in E. pose proof (f_equal (split1 BAR) E) as E'.
    rewrite (split1_app _ (proj1 Px)), (split1_app _ (proj1 Py)) in E'. inversion E' as [[Exy Er]]. subst y.
    destruct (IH ys b b' Hx' Hy' Er) as [-> ->]. auto.
Qed.

Lemma seg_split xs ys b b' : Forall piece xs -> Forall piece ys ->
  join BAR xs ++ [BAR; BAR] ++ b = join BAR ys ++ [BAR; BAR] ++ b' -> xs = ys /\ b = b'.
Proof.
  intros Hx Hy E. destruct xs as [|x xs], ys as [|y ys].
  - simpl in E. inversion E. auto.
  - exfalso. exact (join_pieces_not_bar y ys _ _ (Forall_inv Hy) E).
  - exfalso. symmetry in E. exact (join_pieces_not_bar x xs _ _ (Forall_inv Hx) E).
  - apply (rtail_inj (x :: xs) (y :: ys) b b' Hx Hy). exact E.
Qed.

Lemma join_inj_pieces xs ys : Forall piece xs -> Forall piece ys -> join BAR xs = join BAR ys -> xs = ys.
Proof.
  intros Hx Hy E. destruct xs as [|x xs], ys as [|y ys]; auto.
  - exfalso. inversion Hy; subst. destruct (join_head BAR y ys) as (t & Et). rewrite Et in E. simpl in E.
    destruct y; [apply (proj2 H1); auto|discriminate].
  - exfalso. inversion Hx; subst. destruct (join_head BAR x xs) as (t & Et). rewrite Et in E. simpl in E.
    destruct x; [apply (proj2 H1); auto|discriminate].
  - apply (join_inj (sep := BAR)); auto; try discriminate.
    + eapply Forall_impl; [|exact Hx]. intros a [Ha _]. exact Ha.
    + eapply Forall_impl; [|exact Hy]. intros a [Ha _]. exact Ha.
Qed.

(* ---------------- position-wise reading of flat_map equalities ---------------- *)
Lemma app_inv_length {A} (a a' b b' : list A) : length a = length a' -> a ++ b = a' ++ b' -> a = a' /\ b = b'.
Proof.
  revert a'. induction a as [|x a IH]; intros [|x' a'] Hl E; simpl in *; try discriminate; auto.
  inversion E; subst. destruct (IH a' ltac:(lia) H1) as [-> ->]. auto.
Qed.

Lemma flat_map_inj2 {X X' Y} (F : X -> list Y) (F' : X' -> list Y) l l' :
  Forall2 (fun x x' => length (F x) = length (F' x')) l l' -> flat_map F l = flat_map F' l' ->
  Forall2 (fun x x' => F x = F' x') l l'.
Proof.
  induction 1 as [|x x' l l' Hl HF IH]; simpl; intros E; [constructor|].
  destruct (app_inv_length _ _ _ _ Hl E) as [E1 E2]. constructor; auto.
Qed.


Lemma Forall2_fst_combine {A B} (s : list nat) (p : list A) (q : list B) : length p = length q ->
  Forall2 (fun a b => fst a = fst b) (combine s p) (combine s q).
Proof.
  revert p q. induction s as [|i s IH]; intros [|x p] [|y q] Hl; simpl in *; try discriminate; constructor; auto.
Qed.

Lemma Forall2_combine_nth {A B} (R : nat * A -> nat * B -> Prop) (p : list A) (q : list B) dA dB : forall a,
  length p = length q -> Forall2 R (combine (seq a (length p)) p) (combine (seq a (length p)) q) ->
  forall i, i < length p -> R (a + i, nth i p dA) (a + i, nth i q dB).
Proof.
  revert q. induction p as [|x p IH]; intros [|y q] a Hl HF i Hi; simpl in *; try lia; try discriminate.
  inversion HF; subst. destruct i as [|i].
  - rewrite Nat.add_0_r. auto.
  - replace (a + S i) with (S a + i) by lia. apply IH; auto; lia.
Qed.

Lemma row_length {A B} (i : nat) (F : nat * A -> list N) (G : nat * B -> list N) (l : list (nat * A)) (l' : list (nat * B)) :
  Forall2 (fun a b => fst a = fst b) l l' ->
  length (flat_map (fun jw => if Nat.eqb i (fst jw) then [] else [F jw]) l)
  = length (flat_map (fun jw => if Nat.eqb i (fst jw) then [] else [G jw]) l').
Proof.
  induction 1 as [|a b l l' E HF IH]; simpl; auto. rewrite !app_length, IH, E.
  destruct (Nat.eqb i (fst b)); reflexivity.
Qed.

Lemma kind_of_l_dom l v : (forall p, In p l -> snd p = KREACTION \/ snd p = KSPECIES) -> In v (map fst l) ->
  kind_of_l l v = KREACTION \/ kind_of_l l v = KSPECIES.
Proof.
  induction l as [|[u k] l IH]; simpl; intros Hk Hv; [contradiction|].
  destruct (N.eqb_spec u v) as [->|Hne].
  - apply (Hk (v, k)). left. reflexivity.
  - apply IH; [intros p I; apply Hk; right; auto|]. destruct Hv as [Hv|Hv]; [congruence|auto].
Qed.

(* ---------------- reading a label ---------------- *)
(** A label built from any node pieces and edge bits that are non-empty and free of '|' determines them position by position
    (the bits for distinct positions).  [label] is the case (kind string, [bit g]); the labels of the attribute selections
    are further cases. *)
Section ReadX.
Variables (nodes : list N) (npiece : N -> list N) (bitf : N -> N -> list N).
Definition edge_bitsX (perm : list N) : list (list N) :=
  let ip := indexed perm in
  flat_map (fun iv => flat_map (fun jw => if Nat.eqb (fst iv) (fst jw) then [] else [bitf (snd iv) (snd jw)]) ip) ip.
Definition labelX (perm : list N) : list N := join BAR (map npiece perm) ++ [BAR; BAR] ++ join BAR (edge_bitsX perm).
Hypothesis Hpn : forall v, In v nodes -> piece (npiece v).
Hypothesis Hpb : forall a b, piece (bitf a b).

Theorem label_readX p q : incl p nodes -> incl q nodes -> labelX p = labelX q ->
  length p = length q /\
  (forall i, i < length p -> npiece (nth i p 0%N) = npiece (nth i q 0%N)) /\
  (forall i j, i < length p -> j < length p -> i <> j ->
     bitf (nth i p 0%N) (nth j p 0%N) = bitf (nth i q 0%N) (nth j q 0%N)).
Proof.
  intros Hp Hq E. unfold labelX in E.
  assert (Pp : forall l, incl l nodes -> Forall piece (map npiece l)).
  { intros l Hl. apply Forall_forall. intros x Hx. apply in_map_iff in Hx. destruct Hx as (v & <- & Hv). apply Hpn. apply Hl. auto. }
  assert (Pb : forall l, Forall piece (edge_bitsX l)).
  { intros l. apply Forall_forall. intros x Hx. unfold edge_bitsX in Hx.
    apply in_flat_map in Hx. destruct Hx as (iv & _ & Hx). apply in_flat_map in Hx. destruct Hx as (jw & _ & Hx).
    destruct (Nat.eqb (fst iv) (fst jw)); [contradiction|]. destruct Hx as [<-|[]]. apply Hpb. }
  destruct (seg_split _ _ _ _ (Pp p Hp) (Pp q Hq) E) as [E1 E2].
  apply (join_inj_pieces _ _ (Pb p) (Pb q)) in E2.
  assert (Hl : length p = length q).
  { rewrite <- (map_length npiece p), E1, map_length. reflexivity. }
  split; [exact Hl|]. split.
  - intros i Hi. pose proof (f_equal (fun l => nth i l []) E1) as En. simpl in En.
    rewrite (nth_indep _ [] (npiece 0%N)) in En by (rewrite map_length; auto).
    rewrite (nth_indep (map _ q) [] (npiece 0%N)) in En by (rewrite map_length; lia).
    rewrite !(map_nth npiece) in En. exact En.
  - unfold edge_bitsX, indexed in E2. rewrite <- Hl in E2.
    pose proof (Forall2_fst_combine (seq 0 (length p)) p q Hl) as HF.
    set (ip := combine (seq 0 (length p)) p) in *. set (iq := combine (seq 0 (length p)) q) in *.
    assert (Rows : Forall2 (fun iv iv' =>
              flat_map (fun jw => if Nat.eqb (fst iv) (fst jw) then [] else [bitf (snd iv) (snd jw)]) ip
              = flat_map (fun jw => if Nat.eqb (fst iv') (fst jw) then [] else [bitf (snd iv') (snd jw)]) iq) ip iq).
    { apply flat_map_inj2; auto. eapply Forall2_impl'; [|exact HF]. intros iv iv' Efst. simpl in Efst. rewrite Efst.
      apply row_length. exact HF. }
    intros i j Hi Hj Hij.
    pose proof (Forall2_combine_nth _ p q 0%N 0%N 0 Hl Rows i Hi) as Ri. cbn [fst snd plus] in Ri.
    assert (Cells : Forall2 (fun jw jw' =>
              (if Nat.eqb i (fst jw) then [] else [bitf (nth i p 0%N) (snd jw)])
              = (if Nat.eqb i (fst jw') then [] else [bitf (nth i q 0%N) (snd jw')])) ip iq).
    { apply flat_map_inj2; auto. eapply Forall2_impl'; [|exact HF]. intros jw jw' Efst. simpl in Efst. rewrite Efst.
      destruct (Nat.eqb i (fst jw')); reflexivity. }
    pose proof (Forall2_combine_nth _ p q 0%N 0%N 0 Hl Cells j Hj) as Cj. cbn [fst snd plus] in Cj.
    destruct (Nat.eqb_spec i j) as [->|_]; [congruence|]. congruence.
Qed.
End ReadX.

Theorem label_read g p q : kinds_ok g -> arcs_ok g -> incl p (node_ids g) -> incl q (node_ids g) ->
  label g p = label g q ->
  length p = length q /\
  (forall i, i < length p -> kind_of g (nth i p 0%N) = kind_of g (nth i q 0%N)) /\
  (forall i j, i < length p -> j < length p -> i <> j ->
     find_arc g (nth i p 0%N) (nth j p 0%N) = find_arc g (nth i q 0%N) (nth j q 0%N)).
Proof.
  intros Hk Ha Hp Hq E.
  assert (Hkind : forall v, In v (node_ids g) -> kind_of g v = KREACTION \/ kind_of g v = KSPECIES).
  { intros v Hv. apply kind_of_l_dom; auto. }
  destruct (label_readX (node_ids g) (fun v => kind_str (kind_of g v)) (bit g)) with (p := p) (q := q) as (Hl & Hn & Hb); auto.
  - intros v Hv. split; [apply kind_str_nosep|apply kind_str_nonnil, Hkind, Hv].
  - intros a b. split; [apply bit_nosep|apply bit_nonnil].
  - split; [exact Hl|]. split.
    + intros i Hi. apply kind_str_inj; [apply Hkind, Hp, nth_In; auto|apply Hkind, Hq, nth_In; lia|apply Hn, Hi].
    + intros i j Hi Hj Hij. apply (bit_inj g _ _ _ _ Ha), Hb; auto.
Qed.
