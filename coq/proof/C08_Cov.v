(** C08 — the covered view of a graph: everything the serialisation and the nauty search read factors through
    [cov_nodes] / [cov_edges]; well-formed graphs are "simple"; relabelling and rebuilding respect [geq_cov];
    the serialisation is a function of the covered view (serialise_geq_cov). *)
From Coq Require Import List NArith ZArith Bool Arith Lia Permutation.
From SK Require Import lib.LGraph lib.IRSortKeys lib.IRCore lib.StrJoin.
From SK Require Import model.C08_Model proof.C08_Spec proof.C08_Sort proof.C08_Faithful.
From SK Require lib.IRInst.
Import ListNotations.

(* ---------------- geq_cov is an equivalence ---------------- *)
Lemma geq_cov_refl g : geq_cov g g.
Proof. split; apply Permutation_refl. Qed.
Lemma geq_cov_sym g h : geq_cov g h -> geq_cov h g.
Proof. intros [H1 H2]. split; apply Permutation_sym; auto. Qed.
Lemma geq_cov_trans g h k : geq_cov g h -> geq_cov h k -> geq_cov g k.
Proof. intros [H1 H2] [H3 H4]. split; eapply perm_trans; eauto. Qed.

(* an unordered pair is stored as (min, max) *)
Lemma minmax_cases a b : (N.min a b = a /\ N.max a b = b) \/ (N.min a b = b /\ N.max a b = a).
Proof.
  destruct (N.le_ge_cases a b); [left|right]; split;
    [apply N.min_l|apply N.max_r|apply N.min_r|apply N.max_l]; assumption.
Qed.
Lemma minmax_pair_iff a b c d :
  N.min a b = N.min c d /\ N.max a b = N.max c d <-> (a = c /\ b = d) \/ (a = d /\ b = c).
Proof.
  split.
  - destruct (minmax_cases a b) as [[-> ->]|[-> ->]], (minmax_cases c d) as [[-> ->]|[-> ->]]; tauto.
  - intros [[-> ->]|[-> ->]]; auto using N.min_comm, N.max_comm.
Qed.
Lemma minmax_pair a b c d : (N.min a b, N.max a b) = (N.min c d, N.max c d) -> (a = c /\ b = d) \/ (a = d /\ b = c).
Proof. intros H. apply minmax_pair_iff. inversion H. auto. Qed.

Lemma cove_flip e : cove (flip e) = cove e.
Proof.
  destruct e as [[u v] a]. unfold flip, cove.
  rewrite N.min_l, N.max_r; auto; lia.
Qed.
Lemma geq_geq_cov g h : geq g h -> geq_cov g h.
Proof.
  intros [H1 H2]. split.
  - unfold cov_nodes. apply Permutation_map. exact H1.
  - unfold cov_edges. apply (Permutation_map cove) in H2. rewrite !map_map in H2.
    rewrite (map_ext _ cove) in H2 by (intros; apply cove_flip).
    rewrite (map_ext (fun x => cove (flip x)) cove) in H2 by (intros; apply cove_flip). exact H2.
Qed.

Lemma node_ids_cov g : node_ids g = map fst (cov_nodes g).
Proof. unfold node_ids, cov_nodes. rewrite map_map. reflexivity. Qed.
Lemma geq_cov_ids g h : geq_cov g h -> Permutation (node_ids g) (node_ids h).
Proof. intros [H _]. rewrite !node_ids_cov. apply Permutation_map. exact H. Qed.
Lemma geq_cov_length g h : geq_cov g h -> length (gnodes g) = length (gnodes h).
Proof. intros [H _]. apply Permutation_length in H. unfold cov_nodes in H. rewrite !map_length in H. exact H. Qed.

(* ---------------- simple graphs ---------------- *)
Definition simple (g : graph) : Prop := NoDup (node_ids g) /\ NoDup (map fst (cov_edges g)).

Lemma NoDup_map_key_inj {A B} (f : A -> B) l : NoDup (map f l) -> forall x y, In x l -> In y l -> f x = f y -> x = y.
Proof.
  induction l as [|a l IH]; simpl; intros Hnd x y Hx Hy E; [contradiction|].
  inversion Hnd as [|? ? Ha Hnd']; subst.
  destruct Hx as [<-|Hx], Hy as [<-|Hy]; auto.
  - exfalso. apply Ha. rewrite E. apply in_map. auto.
  - exfalso. apply Ha. rewrite <- E. apply in_map. auto.
Qed.
Lemma simple_keys g : simple g -> forall c1 c2, In c1 (cov_edges g) -> In c2 (cov_edges g) -> fst c1 = fst c2 -> c1 = c2.
Proof. intros [_ H]. apply NoDup_map_key_inj. exact H. Qed.

Lemma simple_geq_cov g h : geq_cov g h -> simple g -> simple h.
Proof.
  intros Hq [H1 H2]. split.
  - eapply Permutation_NoDup; [apply geq_cov_ids; exact Hq|exact H1].
  - destruct Hq as [_ Hq]. eapply Permutation_NoDup; [apply Permutation_map; exact Hq|exact H2].
Qed.

Lemma find_edge_app {B} u v (l1 l2 : list (N * N * B)) :
  find_edge u v (l1 ++ l2) = match find_edge u v l1 with Some x => Some x | None => find_edge u v l2 end.
Proof.
  induction l1 as [|[[a b] x] l1 IH]; simpl; auto.
  destruct ((N.eqb a u && N.eqb b v) || (N.eqb a v && N.eqb b u)); auto.
Qed.
Lemma find_edge_none {B} u v (l : list (N * N * B)) a b x :
  find_edge u v l = None -> In (a, b, x) l -> ~ ((a = u /\ b = v) \/ (a = v /\ b = u)).
Proof.
  induction l as [|[[a' b'] x'] l IH]; simpl; intros Hn Hin; [contradiction|].
  destruct ((N.eqb a' u && N.eqb b' v) || (N.eqb a' v && N.eqb b' u)) eqn:E; [discriminate|].
  destruct Hin as [Heq|Hin]; [|apply IH; auto].
  inversion Heq; subst. intros [[-> ->]|[-> ->]]; rewrite !N.eqb_refl in E; simpl in E;
    try discriminate; rewrite ?orb_true_r in E; discriminate.
Qed.
Lemma find_edge_some {B} u v (l : list (N * N * B)) x :
  find_edge u v l = Some x -> exists a b, In (a, b, x) l /\ ((a = u /\ b = v) \/ (a = v /\ b = u)).
Proof.
  induction l as [|[[a' b'] x'] l IH]; simpl; intros H; [discriminate|].
  destruct ((N.eqb a' u && N.eqb b' v) || (N.eqb a' v && N.eqb b' u)) eqn:E.
  - inversion H; subst. exists a', b'. split; auto.
    apply orb_prop in E. destruct E as [E|E]; apply andb_prop in E; destruct E as [E1 E2];
      apply N.eqb_eq in E1, E2; auto.
  - destruct (IH H) as (a & b & I & Hc). exists a, b. auto.
Qed.

(* in a well-formed graph two stored edges on the same unordered pair are the same list element *)
Lemma wf_same_pair (g : graph) a b x c d y : wf g ->
  In (a, b, x) (gedges g) -> In (c, d, y) (gedges g) -> ((a = c /\ b = d) \/ (a = d /\ b = c)) -> (a, b, x) = (c, d, y).
Proof.
  intros (_ & _ & Hu) I1 I2 Hp.
  apply in_split in I1. destruct I1 as (l1 & l2 & E).
  destruct (Hu _ _ _ _ _ E) as [N1 N2].
  rewrite E in I2. apply in_app_or in I2. destruct I2 as [I2|[I2|I2]].
  - exfalso. apply (find_edge_none _ _ _ _ _ _ N1 I2). destruct Hp as [[-> ->]|[-> ->]]; auto.
  - auto.
  - exfalso. apply (find_edge_none _ _ _ _ _ _ N2 I2). destruct Hp as [[-> ->]|[-> ->]]; auto.
Qed.

Lemma in_cov_edges (g : graph) c : In c (cov_edges g) <-> exists a b x, In (a, b, x) (gedges g) /\ c = (N.min a b, N.max a b, ecov x).
Proof.
  unfold cov_edges. rewrite in_map_iff. split.
  - intros ([[a b] x] & E & I). exists a, b, x. auto.
  - intros (a & b & x & I & E). exists (a, b, x). auto.
Qed.

Lemma wf_keys_nodup (l : list (N * N * eattr)) :
  (forall l1 a b x l2, l = l1 ++ (a, b, x) :: l2 -> find_edge a b l1 = None /\ find_edge a b l2 = None) ->
  NoDup (map fst (map cove l)).
Proof.
  induction l as [|[[a b] x] l IH]; intros H; simpl; constructor.
  - destruct (H [] a b x l eq_refl) as [_ Hn]. intro I. rewrite map_map in I. apply in_map_iff in I.
    destruct I as ([[c d] y] & E & I). simpl in E.
    apply (find_edge_none _ _ _ _ _ _ Hn I). symmetry in E. apply minmax_pair in E.
    destruct E as [[-> ->]|[-> ->]]; auto.
  - apply IH. intros l1 a' b' x' l2 E. destruct (H ((a, b, x) :: l1) a' b' x' l2) as [H1 H2]; [rewrite E; reflexivity|].
    split; auto. simpl in H1. destruct ((N.eqb a a' && N.eqb b b') || (N.eqb a b' && N.eqb b a')); [discriminate|auto].
Qed.
Lemma wf_simple g : wf g -> simple g.
Proof. intros Hw. split; [apply Hw|]. apply wf_keys_nodup. apply Hw. Qed.

(* ---------------- boolean tests for concrete graphs ---------------- *)
Fixpoint nodupb (l : list N) : bool :=
  match l with [] => true | x :: r => negb (mem x r) && nodupb r end.
Lemma nodupb_sound l : nodupb l = true -> NoDup l.
Proof.
  induction l as [|x r IH]; simpl; intros H; constructor; apply andb_prop in H; destruct H as [H1 H2]; auto.
  intro I. apply mem_spec in I. rewrite I in H1. discriminate.
Qed.
(* each edge joins two distinct nodes and its pair does not occur again further on *)
Fixpoint edges_okb {B} (ids : list N) (es : list (N * N * B)) : bool :=
  match es with
  | [] => true
  | (a, b, _) :: r =>
      mem a ids && mem b ids && negb (N.eqb a b)
      && match find_edge a b r with None => true | Some _ => false end && edges_okb ids r
  end.
Lemma edges_okb_sound {B} ids (es : list (N * N * B)) : edges_okb ids es = true ->
  (forall a b x, In (a, b, x) es -> In a ids /\ In b ids /\ a <> b) /\
  (forall l1 a b x l2, es = l1 ++ (a, b, x) :: l2 -> find_edge a b l1 = None /\ find_edge a b l2 = None).
Proof.
  induction es as [|[[c d] y] r IH]; simpl; intros H.
  - split; [intros a b x []|intros [|e l1] a b x l2 E; discriminate].
  - destruct (find_edge c d r) eqn:Ef; [rewrite andb_false_r in H; discriminate|].
    rewrite andb_true_r, !andb_true_iff, !mem_spec, negb_true_iff, N.eqb_neq in H.
    destruct H as [[[Hc Hd] Hne] Hr]. destruct (IH Hr) as [IH1 IH2]. split.
    + intros a b x [E|I]; [inversion E; subst; auto|eauto].
    + intros [|e l1] a b x l2 E; inversion E; subst; [auto|].
      destruct (IH2 _ _ _ _ _ eq_refl) as [N1 N2]. split; [|exact N2]. simpl.
      destruct ((N.eqb c a && N.eqb d b) || (N.eqb c b && N.eqb d a)) eqn:Et; [|exact N1].
      (* the later occurrence of the pair contradicts the test at the head *)
      exfalso. apply (find_edge_none _ _ _ a b x Ef); [apply in_or_app; right; left; reflexivity|].
      rewrite orb_true_iff, !andb_true_iff, !N.eqb_eq in Et. intuition auto.
Qed.
Definition wfb {A B} (g : lgraph A B) : bool := nodupb (node_ids g) && edges_okb (node_ids g) (gedges g).
Lemma wfb_sound {A B} (g : lgraph A B) : wfb g = true -> wf g.
Proof.
  unfold wfb. rewrite andb_true_iff. intros [H1 H2]. split; [apply nodupb_sound; exact H1|].
  apply edges_okb_sound. exact H2.
Qed.
Definition els_okb (g : graph) : bool := forallb (fun p => forallb elc (el (snd p))) (gnodes g).
Lemma els_okb_sound g : els_okb g = true -> els_ok g.
Proof. unfold els_okb. rewrite forallb_forall. intros H p I. apply (H p I). Qed.

(* ---------------- relabelling ---------------- *)
Definition rn (f : N -> N) (c : N * (list N * Z * bool * Z)) := (f (fst c), snd c).
Definition re (f : N -> N) (c : N * N * ecv) := let '(a, b, x) := c in (N.min (f a) (f b), N.max (f a) (f b), x).

Lemma re_minmax f a b x : re f (N.min a b, N.max a b, x) = (N.min (f a) (f b), N.max (f a) (f b), x).
Proof.
  unfold re. destruct (minmax_cases a b) as [[-> ->]|[-> ->]]; [reflexivity|].
  rewrite N.min_comm, N.max_comm. reflexivity.
Qed.
Lemma cov_nodes_relabel f (g : graph) : cov_nodes (relabel f g) = map (rn f) (cov_nodes g).
Proof. unfold cov_nodes, relabel. cbn [gnodes]. rewrite !map_map. reflexivity. Qed.
Lemma cov_edges_relabel f (g : graph) : cov_edges (relabel f g) = map (re f) (cov_edges g).
Proof.
  unfold cov_edges, relabel. cbn [gedges]. rewrite !map_map. apply map_ext. intros [[a b] x].
  symmetry. apply re_minmax.
Qed.
Lemma relabel_geq_cov f g h : geq_cov g h -> geq_cov (relabel f g) (relabel f h).
Proof.
  intros [H1 H2]. split.
  - rewrite !cov_nodes_relabel. apply Permutation_map. exact H1.
  - rewrite !cov_edges_relabel. apply Permutation_map. exact H2.
Qed.
Lemma node_ids_relabel f (g : graph) : node_ids (relabel f g) = map f (node_ids g).
Proof. unfold node_ids, relabel. cbn [gnodes]. rewrite !map_map. reflexivity. Qed.

Lemma inj_on_NoDup_map f l : NoDup l -> C08_Spec.inj_on f l -> NoDup (map f l).
Proof.
  induction 1 as [|x l Hx Hnd IH]; simpl; intros Hi; constructor.
  - intro I. apply in_map_iff in I. destruct I as (y & E & I). apply Hx.
    rewrite <- (Hi y x); auto; [right; auto|left; auto].
  - apply IH. intros a b Ha Hb. apply Hi; right; auto.
Qed.

Lemma NoDup_map_transfer {A B C} (k0 : A -> B) (k : A -> C) l :
  (forall x y, In x l -> In y l -> k x = k y -> k0 x = k0 y) -> NoDup (map k0 l) -> NoDup (map k l).
Proof.
  induction l as [|a l IH]; simpl; intros H Hnd; constructor; inversion Hnd as [|? ? Ha Hnd']; subst.
  - intro I. apply in_map_iff in I. destruct I as (y & E & I). apply Ha.
    rewrite <- (H y a); auto. apply in_map. exact I.
  - apply IH; auto.
Qed.
Lemma simple_relabel f g : wf g -> C08_Spec.inj_on f (node_ids g) -> simple (relabel f g).
Proof.
  intros Hw Hi. split.
  - rewrite node_ids_relabel. apply inj_on_NoDup_map; auto. apply Hw.
  - rewrite cov_edges_relabel. unfold cov_edges. rewrite !map_map.
    pose proof (proj2 (wf_simple g Hw)) as Hk. unfold cov_edges in Hk. rewrite map_map in Hk.
    revert Hk. apply NoDup_map_transfer. intros [[a b] x] [[c d] y] I1 I2 E.
    destruct Hw as (_ & Hend & _).
    destruct (Hend _ _ _ I1) as (Ha & Hb & _), (Hend _ _ _ I2) as (Hc & Hd & _).
    cbn [cove] in *. rewrite !re_minmax in E. cbn [fst] in *.
    apply minmax_pair in E.
    assert (P : (a = c /\ b = d) \/ (a = d /\ b = c)) by (destruct E as [[E1 E2]|[E1 E2]]; [left|right]; split; apply Hi; auto).
    destruct P as [[-> ->]|[-> ->]]; [reflexivity|]. rewrite N.min_comm, N.max_comm. reflexivity.
Qed.

(* ---------------- rebuilding in a node order ---------------- *)
Lemma perm_edges_geq_cov (cg r : graph) : Permutation (gnodes cg) (gnodes r) -> gedges cg = gedges r -> geq_cov cg r.
Proof.
  intros H1 H2. split; [apply Permutation_map; exact H1|]. unfold cov_edges. rewrite H2. apply Permutation_refl.
Qed.
Lemma faithful_geq_cov g cg : faithful g cg -> exists f, C08_Spec.inj_on f (node_ids g) /\ geq_cov cg (relabel f g).
Proof. intros (f & Hi & H1 & H2). exists f. split; auto. apply perm_edges_geq_cov; auto. Qed.

Lemma rebuild_geq_cov (g : graph) order : NoDup (node_ids g) -> Permutation order (node_ids g) ->
  C08_Spec.inj_on (apply_map (mapping_of order)) (node_ids g) /\
  geq_cov (rebuild g order) (relabel (apply_map (mapping_of order)) g).
Proof.
  intros Hnd Hp.
  split.
  - apply ix_inj_on; auto.
  - apply perm_edges_geq_cov; [|reflexivity].
    unfold rebuild. cbn [gnodes]. rewrite gnodes_relabel_as_ids by auto. apply Permutation_map. exact Hp.
Qed.
