(** C08 — directed inputs: the exact back-end (its label reads both triangles of the matrix, /repo repair R5b) is invariant on DiGraphs: digraphs that are isomorphic
    AS DIGRAPHS on the covered attributes, however numbered and in whatever order nodes and arcs were inserted, get the
    same canonical digraph and the same serialisation, hence the same signature; together with soundness the signature
    of the exact back-end is equal exactly for isomorphic digraphs.  Mirrors C08_Invariant.v: equality of the minimal
    labels (C08_DEquiv.v), injectivity of the label string that reads BOTH triangles of the matrix ([dnlabel_inj]: two
    leaves with the same label differ by an automorphism of the digraph), [dserialise_dgeq_cov]. *)
From Coq Require Import String List NArith ZArith Bool Arith Lia Permutation.
From SK Require Import lib.LGraph lib.IRSortKeys lib.IRCore lib.IRSearch lib.StrJoin.
From SK Require Import model.C08_Model model.C08_Digraph proof.C08_Spec proof.C08_DSpec proof.C08_Sort proof.C08_Faithful proof.C08_Cov
                       proof.C08_SigFun proof.C08_Render proof.C08_IR proof.C08_Nauty proof.C08_Sound proof.C08_Equiv proof.C08_Invariant
                       proof.C08_DSer proof.C08_DNauty proof.C08_DEquiv.
From SK Require lib.IRInst.
Import ListNotations.

Notation ix p := (apply_map (mapping_of p)).

Lemma drelabel_ext_on f f' (g : graph) : dwf g -> (forall x, In x (node_ids g) -> f x = f' x) -> relabel f g = relabel f' g.
Proof. intros Hg. apply relabel_ext_ends. apply Hg. Qed.

(* ---------------- two lists walked in lockstep ---------------- *)
Lemma combine_fun_l {A B} (p : list A) : forall (q : list B) a y y', NoDup p ->
  In (a, y) (combine p q) -> In (a, y') (combine p q) -> y = y'.
Proof.
  induction p as [|x p IH]; intros [|z q] a y y' Hn I I'; simpl in *; try contradiction.
  inversion Hn as [|? ? Hx Hn']; subst. destruct I as [E|I], I' as [E'|I'].
  - congruence.
  - inversion E; subst. exfalso. apply Hx. eapply in_combine_l; eauto.
  - inversion E'; subst. exfalso. apply Hx. eapply in_combine_l; eauto.
  - eapply IH; eauto.
Qed.
Lemma combine_fun_r {A B} (p : list A) : forall (q : list B) x x' b, NoDup q ->
  In (x, b) (combine p q) -> In (x', b) (combine p q) -> x = x'.
Proof.
  induction p as [|z p IH]; intros [|y q] x x' b Hn I I'; simpl in *; try contradiction.
  inversion Hn as [|? ? Hy Hn']; subst. destruct I as [E|I], I' as [E'|I'].
  - congruence.
  - inversion E; subst. exfalso. apply Hy. eapply in_combine_r; eauto.
  - inversion E'; subst. exfalso. apply Hy. eapply in_combine_r; eauto.
  - eapply IH; eauto.
Qed.
Lemma filter_lockstep {A B} (P : A -> bool) (Q : B -> bool) (p : list A) : forall (q : list B),
  (forall x y, In (x, y) (combine p q) -> P x = Q y) -> length p = length q ->
  combine (filter P p) (filter Q q) = filter (fun xy => P (fst xy)) (combine p q) /\ length (filter P p) = length (filter Q q).
Proof.
  induction p as [|x p IH]; intros [|y q] H Hl; simpl in *; try discriminate; auto.
  assert (E : P x = Q y) by (apply H; auto).
  destruct (IH q) as [E1 E2]; [intros; apply H; auto|lia|].
  rewrite <- E. destruct (P x); simpl; [rewrite E1; split; [reflexivity|lia]|auto].
Qed.
Lemma in_combine_flat_map {A A' B B'} (f : A -> list B) (f' : A' -> list B') (p : list A) : forall (p' : list A'),
  (forall x x', In (x, x') (combine p p') -> length (f x) = length (f' x')) ->
  forall x x' y y', In (x, x') (combine p p') -> In (y, y') (combine (f x) (f' x')) ->
  In (y, y') (combine (flat_map f p) (flat_map f' p')).
Proof.
  induction p as [|z p IH]; intros [|z' p'] H x x' y y' I J; simpl in *; try contradiction.
  rewrite combine_app_eq by (apply H; auto). apply in_or_app. destruct I as [E|I].
  - inversion E; subst. left. exact J.
  - right. apply (IH p') with (x := x) (x' := x'); auto.
Qed.

Lemma dpairs_combine (p p' : list N) : NoDup p -> NoDup p' -> length p = length p' ->
  forall a a' b b', In (a, a') (combine p p') -> In (b, b') (combine p p') -> a <> b ->
  In ((a, b), (a', b')) (combine (dpairs p) (dpairs p')).
Proof.
  intros Hn Hn' Hl a a' b b' Ia Ib Hne. unfold dpairs.
  assert (LS : forall x x', In (x, x') (combine p p') -> forall y y', In (y, y') (combine p p') ->
                negb (N.eqb y x) = negb (N.eqb y' x')).
  { intros x x' Ix y y' Iy. f_equal. destruct (N.eqb_spec y x) as [->|H1], (N.eqb_spec y' x') as [->|H2]; auto.
    - exfalso. apply H2. eapply (combine_fun_l p p'); eauto.
    - exfalso. apply H1. eapply (combine_fun_r p p'); eauto. }
  apply (in_combine_flat_map (fun x => map (pair x) (filter (fun y => negb (N.eqb y x)) p))
                             (fun x => map (pair x) (filter (fun y => negb (N.eqb y x)) p')) p p') with (x := a) (x' := a').
  - intros x x' Ix. rewrite !map_length. apply (filter_lockstep _ _ p p' (LS x x' Ix) Hl).
  - exact Ia.
  - rewrite combine_map_pair. apply in_map_iff. exists (b, b'). split; [reflexivity|].
    rewrite (proj1 (filter_lockstep _ _ p p' (LS a a' Ia) Hl)). apply filter_In. split; auto.
    cbn [fst]. destruct (N.eqb_spec b a); [congruence|reflexivity].
Qed.

(* ---------------- the label string determines the position-indexed covered digraph ---------------- *)
Lemma dedge_bit_inj g h ab cd : dedge_bit g ab = dedge_bit h cd ->
  option_map ecov (arc g (fst ab) (snd ab)) = option_map ecov (arc h (fst cd) (snd cd)).
Proof. intros E. rewrite !dedge_bit_cov in E. apply EB_inj. exact E. Qed.

Theorem dnlabel_inj g h p q : length p = length q ->
  (forall v, In v p -> el_ok (el (attr_of g v))) -> (forall v, In v q -> el_ok (el (attr_of h v))) ->
  dnlabel g p = dnlabel h q ->
  map (fun v => ncov (attr_of g v)) p = map (fun v => ncov (attr_of h v)) q /\
  map (fun ab => option_map ecov (arc g (fst ab) (snd ab))) (dpairs p)
  = map (fun ab => option_map ecov (arc h (fst ab) (snd ab))) (dpairs q).
Proof.
  intros Hl Hp Hq E. apply label_text_inj; auto. unfold dnlabel in E.
  rewrite !(map_ext (dedge_bit _) _ (dedge_bit_cov _)) in E. exact E.
Qed.

Lemma find_arc_in a b (l : list (N * N * eattr)) y : find_arc a b l = Some y -> In (a, b, y) l.
Proof.
  induction l as [|[[c d] x] l IH]; simpl; [discriminate|].
  destruct (N.eqb_spec c a) as [->|H1], (N.eqb_spec d b) as [->|H2]; simpl; try (intros H; right; apply IH; exact H).
  intros [= ->]. left. reflexivity.
Qed.
Lemma find_arc_first a b x (l : list (N * N * eattr)) : NoDup (map (fun e : N * N * eattr => fst e) l) -> In (a, b, x) l -> find_arc a b l = Some x.
Proof.
  induction l as [|[[c d] y] l IH]; simpl; intros Hn I; [contradiction|]. inversion Hn as [|? ? Hk Hn']; subst.
  destruct I as [E|I].
  - inversion E; subst. rewrite !N.eqb_refl. reflexivity.
  - destruct (N.eqb_spec c a) as [->|H1], (N.eqb_spec d b) as [->|H2]; simpl; try (apply IH; auto).
    exfalso. apply Hk. change (a, b) with (fst (a, b, x)). apply (in_map (fun e : N * N * eattr => fst e)). exact I.
Qed.
Lemma in_dcov_edges (g : graph) c : In c (dcov_edges g) <-> exists a b x, In (a, b, x) (gedges g) /\ c = (a, b, ecov x).
Proof.
  unfold dcov_edges. rewrite in_map_iff. split.
  - intros ([[a b] x] & E & I). exists a, b, x. auto.
  - intros (a & b & x & I & E). exists (a, b, x). auto.
Qed.

(* ---------------- two leaves with the same label give the same covered canonical digraph ---------------- *)
Lemma dwf_arc (g : graph) : dwf g -> forall a b x, In (a, b, x) (gedges g) -> arc g a b = Some x.
Proof. intros Hg a b x I. unfold arc. apply find_arc_first; auto. apply Hg. Qed.

(* ---------------- two digraphs with equal labels ---------------- *)
Section TwoDigraphs.
Variables g h : graph.
Hypothesis Hg : dwf g.
Hypothesis Hh : dwf h.

Definition dzrel2 (p q : list N) : Prop :=
  (forall a a', In (a, a') (combine p q) -> ncov (attr_of g a) = ncov (attr_of h a')) /\
  (forall a a' b b', In (a, a') (combine p q) -> In (b, b') (combine p q) -> a <> b ->
     option_map ecov (arc g a b) = option_map ecov (arc h a' b')).

Lemma dhalf2 p q : Permutation p (node_ids g) -> Permutation q (node_ids h) -> length p = length q -> dzrel2 p q ->
  (forall c, In c (cov_nodes (relabel (ix p) g)) -> In c (cov_nodes (relabel (ix q) h))) /\
  (forall c, In c (dcov_edges (relabel (ix p) g)) -> In c (dcov_edges (relabel (ix q) h))).
Proof.
  intros Hp Hq Hl [Z1 Z2].
  pose proof (ix_partner g h p q (proj1 Hg) (proj1 Hh) Hp Hq Hl) as Hex.
  split.
  - apply cov_nodes_half; auto; [apply Hg|apply Hh].
  - intros c I. apply in_dcov_edges in I. destruct I as (u & v & x & I & ->).
    unfold relabel in I. cbn [gedges] in I. apply in_map_iff in I. destruct I as ([[a b] x0] & E & I). inversion E; subst. clear E.
    pose proof (proj1 (proj2 Hg)) as Hend. destruct (Hend _ _ _ I) as (Ia & Ib & Hne).
    destruct (Hex a Ia) as (a' & Iza & Ia' & Eia). destruct (Hex b Ib) as (b' & Izb & Ib' & Eib).
    pose proof (Z2 a a' b b' Iza Izb Hne) as H. rewrite (dwf_arc g Hg a b x I) in H. cbn [option_map] in H.
    destruct (arc h a' b') as [y|] eqn:Ey; [|discriminate]. cbn [option_map] in H. assert (Hxy : ecov x = ecov y) by congruence.
    unfold arc in Ey. apply find_arc_in in Ey.
    apply in_dcov_edges. exists (ix q a'), (ix q b'), y. split.
    + unfold relabel. cbn [gedges]. apply in_map_iff. exists (a', b', y). auto.
    + rewrite Eia, Eib, Hxy. reflexivity.
Qed.
End TwoDigraphs.

Lemma dlabel_zrel2 g h p q : els_ok g -> els_ok h -> NoDup p -> NoDup q -> length p = length q ->
  dnlabel g p = dnlabel h q -> dzrel2 g h p q.
Proof.
  intros Eg Eh Np Nq Hl E.
  destruct (dnlabel_inj g h p q Hl (fun v _ => attr_el_ok g Eg v) (fun v _ => attr_el_ok h Eh v) E) as [E1 E2]. split.
  - intros a a' I. exact (map_eq_combine _ _ _ _ E1 a a' I).
  - intros a a' b b' Ia Ib Hne.
    exact (map_eq_combine _ _ _ _ E2 _ _ (dpairs_combine p q Np Nq Hl a a' b b' Ia Ib Hne)).
Qed.

Theorem dequal_labels_dgeq_cov g h p q : dwf g -> dwf h -> els_ok g -> els_ok h ->
  Permutation p (node_ids g) -> Permutation q (node_ids h) -> length p = length q -> dnlabel g p = dnlabel h q ->
  dgeq_cov (relabel (ix p) g) (relabel (ix q) h).
Proof.
  intros Hg Hh Eg Eh Pp Pq Hl E.
  assert (Np : NoDup p) by (eapply Permutation_NoDup; [apply Permutation_sym; exact Pp|apply Hg]).
  assert (Nq : NoDup q) by (eapply Permutation_NoDup; [apply Permutation_sym; exact Pq|apply Hh]).
  destruct (dhalf2 g h Hg Hh p q Pp Pq Hl (dlabel_zrel2 g h p q Eg Eh Np Nq Hl E)) as [A1 A2].
  destruct (dhalf2 h g Hh Hg q p Pq Pp (eq_sym Hl) (dlabel_zrel2 h g q p Eh Eg Nq Np (eq_sym Hl) (eq_sym E))) as [B1 B2].
  pose proof (dsimple_relabel (ix p) g Hg (ix_inj_on g p (proj1 Hg) Pp)) as S1.
  pose proof (dsimple_relabel (ix q) h Hh (ix_inj_on h q (proj1 Hh) Pq)) as S2.
  split; apply NoDup_Permutation.
  - apply (NoDup_map_inv fst). rewrite <- node_ids_cov. apply S1.
  - apply (NoDup_map_inv fst). rewrite <- node_ids_cov. apply S2.
  - intros c. split; auto.
  - apply (NoDup_map_inv fst). apply S1.
  - apply (NoDup_map_inv fst). apply S2.
  - intros c. split; auto.
Qed.

Theorem dsame_label_dgeq_cov g : dwf g -> els_ok g -> forall p p', Permutation p (node_ids g) -> Permutation p' (node_ids g) ->
  dnlabel g p = dnlabel g p' -> dgeq_cov (relabel (ix p) g) (relabel (ix p') g).
Proof.
  intros Hg Eg p p' Hp Hp'. apply dequal_labels_dgeq_cov; auto.
  rewrite (Permutation_length Hp), (Permutation_length Hp'). reflexivity.
Qed.

Notation dlvs k := (leaves2 _ lexleb (dsigN k) (rfuel k) (children k) (sfuel k) (init_partition k) []).
Lemma dleaf_perm (k : graph) p : NoDup (node_ids k) -> In p (dlvs k) -> Permutation p (node_ids k).
Proof. intros Hnd. exact (search_leaf_perm k (dsigN k) _ (init_vpart k) Hnd p). Qed.

(* ---------------- the invariance theorem for digraphs ---------------- *)
Theorem dnauty_invariant g h : dwf g -> dwf h -> els_ok g -> diso_cov g h ->
  dgeq_cov (dcanon_nauty g) (dcanon_nauty h) /\ dserialise (dcanon_nauty g) = dserialise (dcanon_nauty h).
Proof.
  intros Hg Hh Eg (f & Hf & Hq0).
  destruct (global_renumbering dgeq_cov g h f (proj1 (proj2 Hg)) Hf Hq0) as (pi & pi_inj & _ & Hq).
  pose proof (proj1 Hg) as Ng. pose proof (proj1 Hh) as Nh.
  destruct (dnauty_perm_leaf g Ng) as [Lp Ep]. destruct (dnauty_perm_leaf h Nh) as [Lq Eq].
  pose proof (dnauty_label_rel pi pi_inj g h Hg Hq) as El. rewrite Ep, Eq in El. inversion El as [El'].
  pose proof (dleaves_rel pi pi_inj g h Hg Hq) as HL.
  apply (Permutation_in _ (Permutation_sym HL)) in Lq. apply in_map_iff in Lq. destruct Lq as (p' & Eq' & Lp').
  set (p := dnauty_perm g) in *. set (q := dnauty_perm h) in *.
  assert (Elab : dnlabel g p = dnlabel g p') by (rewrite <- El', <- Eq'; apply (dnlabel_rel pi pi_inj g h Hg Hq)).
  pose proof (dleaf_perm g p Ng Lp) as Pp. pose proof (dleaf_perm g p' Ng Lp') as Pp'.
  assert (C : dgeq_cov (dcanon_nauty g) (dcanon_nauty h)).
  { unfold dcanon_nauty. fold p q.
    eapply dgeq_cov_trans; [apply (dsame_label_dgeq_cov g Hg Eg p p' Pp Pp' Elab)|].
    apply dgeq_cov_sym.
    eapply dgeq_cov_trans; [apply relabel_dgeq_cov; apply dgeq_cov_sym; exact Hq|].
    rewrite relabel_compose. rewrite (drelabel_ext_on _ (ix p') g Hg); [apply dgeq_cov_refl|].
    intros x _. rewrite <- Eq'. apply ix_map. exact pi_inj. }
  split; [exact C|].
  apply dserialise_dgeq_cov; [|exact C].
  unfold dcanon_nauty. apply dsimple_relabel; auto.
  apply ix_inj_on; auto.
Qed.

Theorem dsignature_invariant_nauty (D : Type) (digest : str -> D) g h : dwf g -> dwf h -> els_ok g -> diso_cov g h ->
  dgeq_cov (dcanon_nauty g) (dcanon_nauty h) /\ digest (dserialise (dcanon_nauty g)) = digest (dserialise (dcanon_nauty h)).
Proof. intros Hg Hh Eg Hi. destruct (dnauty_invariant g h Hg Hh Eg Hi) as [H1 H2]. split; auto. f_equal. exact H2. Qed.

Theorem dsignature_sound_nauty (D : Type) (digest : str -> D) g h : dwf g -> dwf h -> els_ok g -> els_ok h ->
  (digest (dserialise (dcanon_nauty g)) = digest (dserialise (dcanon_nauty h)) ->
   dserialise (dcanon_nauty g) = dserialise (dcanon_nauty h)) ->
  digest (dserialise (dcanon_nauty g)) = digest (dserialise (dcanon_nauty h)) -> diso_cov g h.
Proof.
  intros Hg Hh Eg Eh Hd E. apply (dsound_faithful g h (dcanon_nauty g) (dcanon_nauty h)); auto.
  - apply faithful_dnauty. apply Hg.
  - apply faithful_dnauty. apply Hh.
Qed.

(* the signature of the exact back-end on digraphs: equal exactly for isomorphic digraphs (what SynGraph / CanonicalGraph compare) *)
Theorem dsignature_exact_nauty (D : Type) (digest : str -> D) g h : dwf g -> dwf h -> els_ok g -> els_ok h ->
  (digest (dser_nauty g) = digest (dser_nauty h) -> dser_nauty g = dser_nauty h) ->
  (digest (dser_nauty g) = digest (dser_nauty h) <-> diso_cov g h).
Proof.
  intros Hg Hh Eg Eh Hd. split.
  - intros E. apply (dsignature_sound_nauty D digest g h); auto.
  - intros Hi. apply (dsignature_invariant_nauty D digest g h); auto.
Qed.

(* non-vacuity: dn_h (C08_DNauty.v) is dn_g with 3 and 4 exchanged and re-inserted - the witness of repair R5b; the
   transposed digraph is NOT isomorphic to it (one source of out-degree 2 against one sink of in-degree 2) *)
Definition dn_f (x : N) : N := if N.eqb x 3 then 4%N else if N.eqb x 4 then 3%N else x.
Definition dn_t : graph :=
  LG (gnodes dn_g) [(2%N, 1%N, EA 2 None); (4%N, 1%N, EA 2 None); (3%N, 2%N, EA 2 None)].
Example dinv_ex : dwf dn_g /\ dwf dn_h /\ els_ok dn_g /\ diso_cov dn_g dn_h
                  /\ dser_nauty dn_g = dser_nauty dn_h /\ dser_nauty dn_g <> dser_nauty dn_t.
Proof.
  split; [apply dwfb_sound; reflexivity|]. split; [apply dwfb_sound; reflexivity|]. split; [apply els_okb_sound; reflexivity|]. split; [|split].
  - exists dn_f. split.
    + intros x y Hx Hy. simpl in Hx, Hy.
      destruct Hx as [<-|[<-|[<-|[<-|[]]]]], Hy as [<-|[<-|[<-|[<-|[]]]]]; vm_compute; intros E; try reflexivity; discriminate.
    + split; vm_compute; apply Permutation_refl.
  - apply ex_dnauty_ids.
  - vm_compute. discriminate.
Qed.

(* a label that reads only the arcs p_i -> p_j with i < j (the code before /repo repair R5b) is blind: two orderings of
   dn_g with the same such label (no arc points forwards in either) give different canonical digraphs *)
Definition old_dlabel (g : graph) (p : list N) : str :=
  node_seg g p ++ lit "||"%string ++ join 124%N (map (dedge_bit g) (pairs p)).
Example old_label_blind :
  old_dlabel dn_g [3%N; 4%N; 2%N; 1%N] = old_dlabel dn_g [4%N; 3%N; 2%N; 1%N]
  /\ dserialise (relabel (ix [3%N; 4%N; 2%N; 1%N]) dn_g) <> dserialise (relabel (ix [4%N; 3%N; 2%N; 1%N]) dn_g)
  /\ dnlabel dn_g [3%N; 4%N; 2%N; 1%N] <> dnlabel dn_g [4%N; 3%N; 2%N; 1%N].
Proof. split; [vm_compute; reflexivity|]. split; vm_compute; discriminate. Qed.

Print Assumptions dnauty_invariant.
Print Assumptions dsignature_exact_nauty.
