(** C06 — the hydrogen-count clause is a lower bound: raising hcounts in the host (everything else the
    search can see unchanged) only adds matches. *)
From Coq Require Import List NArith Bool Arith Lia Permutation SetoidList.
From SK Require Import lib.LGraph lib.Mono model.C06_Model model.C06_Attrs lib.C06_Spec lib.C06_SelSpec
  proof.C06_Attrs proof.C06_AttrsSpec proof.C06_AttrsEx.
Import ListNotations.

Theorem is_mono_sel_hcount_raise na ea (H H' P : rgraph) m :
  node_ids H' = node_ids H ->
  (forall u k, In k na -> aget k (fst (rlab H' u)) = aget k (fst (rlab H u))) ->
  (forall u, (hc (rlab H u) <= hc (rlab H' u))%N) ->
  (forall u v, LGraph.adj H' u v = LGraph.adj H u v) ->
  is_mono_sel na ea H P m -> is_mono_sel na ea H' P m.
Proof.
  intros En Ea Eh Ee (A & B & C & D & E). split; [exact A|split; [exact B|split; [exact C|split]]].
  - intros p h Hin. destruct (D p h Hin) as (X & Y & Z). split; [rewrite En; exact X|split].
    + intros k Hk. rewrite (Ea h k Hk). exact (Y k Hk).
    + eapply N.le_trans; [exact Z|apply Eh].
  - intros p h p' h' b I1 I2 Hadj. rewrite Ee. exact (E p h p' h' b I1 I2 Hadj).
Qed.

Theorem sel_hcount_raise na ea T T' strict strict' (H H' P : rgraph) :
  rgwf H -> rgwf H' -> rgwf P ->
  node_ids H' = node_ids H ->
  (forall u k, In k na -> aget k (fst (rlab H' u)) = aget k (fst (rlab H u))) ->
  (forall u, (hc (rlab H u) <= hc (rlab H' u))%N) ->
  (forall u v, LGraph.adj H' u v = LGraph.adj H u v) ->
  (lenN (monos_sel na ea H P (node_ids H) (node_ids P)) <= T)%N ->
  (lenN (monos_sel na ea H' P (node_ids H') (node_ids P)) <= T')%N ->
  forall m, In m (find_sel (monos_sel na ea H P) (Cfg 0 0 T strict false) na ea H P) ->
  exists m', In m' (find_sel (monos_sel na ea H' P) (Cfg 0 0 T' strict' false) na ea H' P) /\ Permutation m m'.
Proof.
  intros WH WH' WP En Ea Eh Ee L1 L2 m Hm.
  destruct (sel_all_exact na ea T strict H P WH WP L1) as (S1 & _ & _).
  destruct (sel_all_exact na ea T' strict' H' P WH' WP L2) as (_ & S2 & _).
  apply S2. apply (is_mono_sel_hcount_raise na ea H H' P m En Ea Eh Ee). apply S1. exact Hm.
Qed.

(** non-vacuity: the pattern of proof/C06_AttrsEx.v asks for one hydrogen on its O; host node 4 (an O without
    hcount) does not qualify; with hcount 1 on node 4 nothing changes for C-O (4 is isolated), but the lone-O
    pattern gains a match *)
Local Open Scope N_scope.
Definition Hr' : rgraph :=
  LG [ (1, ([(1, 1); (2, 3); (3, 6)], Some 1)); (2, ([(1, 1); (2, 3)], None));
       (3, ([(1, 2); (2, 3); (3, 6); (5, 7)], Some 1)); (4, ([(1, 2)], Some 1)) ]
     [ (1, 2, [(4, 4)]); (2, 3, [(4, 5)]) ].
Definition Po : rgraph := LG [ (11, ([(1, 2)], Some 1)) ] [].
Example ex_hcount_raise :
  find_sel (monos_sel [1] [] Hr Po) (Cfg 0 0 5000 true false) [1] [] Hr Po = [[(11, 3)]] /\
  find_sel (monos_sel [1] [] Hr' Po) (Cfg 0 0 5000 true false) [1] [] Hr' Po = [[(11, 3)]; [(11, 4)]] /\
  (forall u, hc (rlab Hr u) <= hc (rlab Hr' u)).
Proof.
  split; [vm_compute; reflexivity|split; [vm_compute; reflexivity|]].
  intros u. unfold rlab, label, Hr, Hr'. cbn [gnodes assoc].
  repeat (destruct (N.eqb u _); [vm_compute; discriminate|]). vm_compute. discriminate.
Qed.
