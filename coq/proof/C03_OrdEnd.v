(** C03 — the end-to-end statements of the default mode for EVERY visiting order of the hydrogen-transfer groups, and the
    non-vacuity examples of the [explicit_h_ord] theorems and of C03_FirstFit.v (a group on which the visiting order changes the wiring). *)
From Coq Require Import List NArith ZArith Bool Lia Permutation.
From SK Require Import lib.Tok lib.LGraph model.C03_Model model.C03_Order proof.C03_Proof proof.C03_Glue proof.C03_Backward
                       proof.C03_Skeleton proof.C03_ExplicitH proof.C03_ExplicitShape proof.C03_ExplicitTotal proof.C03_Expand
                       proof.C03_Wiring proof.C03_WiringCount proof.C03_PairIds proof.C03_DefaultEnd proof.C03_DefaultWiring
                       proof.C03_Ord proof.C03_FirstFit.
Import ListNotations.
Local Open Scope Z_scope.

Section AnyOrder.
  Variable ord : list N -> list N.
  Hypothesis ord_in : forall l x, In x (ord l) <-> In x l.
  Hypothesis ord_nodup : forall l, NoDup l -> NoDup (ord l).

  Theorem default_end_to_end_direct_ord tpl rc l r host m T T' ms :
    nodupb (node_ids tpl) = true -> (forall k a, In (k, a) (gnodes tpl) -> a_el (iH a) = a_el (iG a)) ->
    simple_edgesb (gedges tpl) = true -> synrule tpl true = Some (rc, l, r) -> tpl_condition tpl ->
    wf_hostb host = true -> wf_rcb rc = true -> match_rcb host rc m = true -> glue host rc m = Some T ->
    explicit_h_ord ord T = Some (T', ms) ->
    (forall e, elem_count e (fst (its_decompose T')) = elem_count e (snd (its_decompose T'))) /\
    total_charge (fst (its_decompose T')) = total_charge (snd (its_decompose T')) /\
    (forall e, elem_count e (fst (its_decompose T')) = elem_count e (mol_of_host host)) /\
    (forall a b, In a (node_ids host) -> In b (node_ids host) -> bondG T' a b = adj host a b).
  Proof.
    intros Hnd0 Hel Hs H Hcond Hwh Hwr Hm Hg He.
    exact (explicit_h_ord_conserve ord ord_in host rc m T T' ms Hwh Hwr Hm Hg (default_rule_balanced tpl rc l r Hnd0 Hel Hs H Hcond) He).
  Qed.

  Theorem default_end_to_end_expanded_ord tpl rc l r host nodes m T T' ms :
    nodupb (node_ids tpl) = true -> (forall k a, In (k, a) (gnodes tpl) -> a_el (iH a) = a_el (iG a)) ->
    simple_edgesb (gedges tpl) = true -> synrule tpl true = Some (rc, l, r) -> tpl_condition tpl ->
    wf_hostb host = true -> wf_hostb (h_to_explicit host nodes) = true -> wf_rcb rc = true ->
    match_rcb (h_to_explicit host nodes) rc m = true -> glue (h_to_explicit host nodes) rc m = Some T ->
    explicit_h_ord ord T = Some (T', ms) ->
    (forall e, elem_count e (fst (its_decompose T')) = elem_count e (snd (its_decompose T'))) /\
    total_charge (fst (its_decompose T')) = total_charge (snd (its_decompose T')) /\
    (forall e, elem_count e (fst (its_decompose T')) = elem_count e (mol_of_host host)) /\
    (forall a b, In a (node_ids host) -> In b (node_ids host) -> bondG T' a b = adj host a b).
  Proof.
    intros Hnd0 Hel Hs H Hcond Hwh Hwx Hwr Hm Hg He.
    destruct (explicit_path_ord ord ord_in host nodes rc m T T' ms Hwh Hwx Hwr Hm Hg He) as (A & B & C & D).
    destruct (D (default_rule_balanced tpl rc l r Hnd0 Hel Hs H Hcond)) as [D1 D2]. auto.
  Qed.

  Theorem default_migrations_in_template_groups_ord tpl rc l r host m T :
    nodupb (node_ids tpl) = true -> (forall k n, In (k, n) (gnodes tpl) -> i_hp n = None) ->
    synrule tpl true = Some (rc, l, r) ->
    wf_hostb host = true -> wf_rcb rc = true -> match_rcb host rc m = true -> glue host rc m = Some T ->
    forall T' ms, explicit_h_ord ord T = Some (T', ms) ->
    forall sd, In sd ms ->
      exists x y, mget m x = Some (fst sd) /\ mget m y = Some (snd sd) /\ tpl_group tpl x y /\
                  0 < dl_of T (fst sd) /\ dl_of T (snd sd) < 0.
  Proof.
    intros Hnd Hnone Hs Hwh Hwr Hm Hg T' ms He sd I.
    destruct (explicit_h_ord_wiring ord ord_in T T' ms (glued_nodup host rc m T Hwh Hwr Hm Hg) He) as [_ W].
    destruct (W sd I) as (G & D1 & D2).
    inversion G as [a Ea Eb|a b c Hsp Hgr Ea Ec].
    - exfalso. assert (Eq : fst sd = snd sd) by congruence. rewrite Eq in D1. lia.
    - destruct (default_share_pair_template tpl rc l r host m T _ b Hnd Hnone Hs Hwh Hwr Hm Hg Hsp) as (x1 & y1 & h & E1 & E2 & _).
      destruct (group_chain tpl rc l r host m T Hnd Hnone Hs Hwh Hwr Hm Hg (fst sd) (snd sd) G x1 E1) as (y & Ey & Gy). exists x1, y. auto.
  Qed.
End AnyOrder.

(** * examples: one group {1, 2, 8, 9} (all four atoms carry pair id 1), donors 1 and 8 (one hydrogen each), recipients 2 and 9.
    CPython visits the set {1, 8, 2, 9} as 8, 1, 2, 9 (probe in notes/C03.md): the code wires 8 -> 2 and 1 -> 9, the
    sorted order would wire 1 -> 2 and 8 -> 9. *)
Definition oC : N := 67%N.
Definition oO : N := 79%N.
Definition o_at (e : N) (h : Z) : nattr := NA e false h 0 [].
Definition ex_grp : its :=
  LG [(1%N, IN (o_at oC 1) (o_at oC 0) 0 (Some [1%N])); (8%N, IN (o_at oC 1) (o_at oC 0) 0 (Some [1%N]));
      (2%N, IN (o_at oO 0) (o_at oO 1) 0 (Some [1%N])); (9%N, IN (o_at oO 0) (o_at oO 1) 0 (Some [1%N]))] [].
Definition ex_tbl : list (list N) := [[8%N; 1%N; 2%N; 9%N]].

Example ex_ord_changes_wiring :
  option_map snd (explicit_h_ord (ord_of ex_tbl) ex_grp) = Some [(8%N, 2%N); (1%N, 9%N)] /\
  option_map snd (explicit_h ex_grp) = Some [(1%N, 2%N); (8%N, 9%N)] /\
  option_map snd (explicit_h_ord (ord_of []) ex_grp) = option_map snd (explicit_h ex_grp).
Proof. vm_compute. repeat split. Qed.

(** a recorded order is only used for a component with exactly its atoms *)
Example ex_ord_of_guard : ord_of [[8%N; 1%N; 2%N]] [1%N; 8%N; 2%N; 9%N] = [1%N; 2%N; 8%N; 9%N] /\
                          ord_of [[8%N; 1%N; 1%N; 9%N]] [1%N; 8%N; 2%N; 9%N] = [1%N; 2%N; 8%N; 9%N] /\
                          ord_of ex_tbl [9%N; 2%N; 8%N; 1%N] = [8%N; 1%N; 2%N; 9%N].
Proof. vm_compute. repeat split. Qed.

Example ex_ord_wiring : forall sd, In sd [(8%N, 2%N); (1%N, 9%N)] -> same_group ex_grp (fst sd) (snd sd).
Proof.
  assert (H : explicit_h_ord (ord_of ex_tbl) ex_grp <> None) by (vm_compute; discriminate).
  destruct (explicit_h_ord (ord_of ex_tbl) ex_grp) as [[T' ms]|] eqn:E; [|congruence].
  assert (Ems : ms = [(8%N, 2%N); (1%N, 9%N)]).
  { pose proof (f_equal (option_map snd) E) as E'. vm_compute in E'. inversion E'. reflexivity. }
  assert (Hnd : NoDup (node_ids ex_grp)) by (apply nodupb_NoDup; reflexivity).
  destruct (explicit_h_ord_wiring (ord_of ex_tbl) (ord_of_in ex_tbl) ex_grp T' ms Hnd E) as [_ W].
  intros sd I. rewrite <- Ems in I. exact (proj1 (W sd I)).
Qed.

Example ex_first_fit_zip :
  zip_migrations ex_grp [8%N; 1%N; 2%N; 9%N] = [(8%N, 2%N); (1%N, 9%N)] /\
  migrations_of ex_grp [8%N; 1%N; 2%N; 9%N] = Some [(8%N, 2%N); (1%N, 9%N)] /\
  zip_okb (ord_of ex_tbl) ex_grp = true.
Proof. vm_compute. repeat split. Qed.

(** two hydrogens from one donor, a recipient with room for two: slots are repeated *)
Definition ex_grp2 : its :=
  LG [(5%N, IN (o_at oC 3) (o_at oC 1) 0 (Some [1%N; 2%N])); (12%N, IN (o_at oC 1) (o_at oC 0) 0 (Some [2%N]));
      (3%N, IN (o_at oO 0) (o_at oO 2) 0 (Some [1%N])); (20%N, IN (o_at oO 0) (o_at oO 1) 0 (Some [2%N]))] [].
Example ex_first_fit_zip2 :
  slots (dl_of ex_grp2) [12%N; 5%N] = [12%N; 5%N; 5%N] /\
  migrations_of ex_grp2 [12%N; 5%N; 3%N; 20%N] = Some [(12%N, 3%N); (5%N, 3%N); (5%N, 20%N)] /\
  migrations_of ex_grp2 [12%N; 5%N; 3%N; 20%N] = Some (zip_migrations ex_grp2 [12%N; 5%N; 3%N; 20%N]) /\
  comp_balancedb ex_grp2 [12%N; 5%N; 3%N; 20%N] = true.
Proof. vm_compute. repeat split. Qed.

Example ex_ord_crash : explicit_h_ord (ord_of ex_tbl) (LG [(1%N, IN (o_at oO 1) (o_at oO 0) 0 (Some [1%N]))] []) = None.
Proof. reflexivity. Qed.

Example ex_ord_usage : forall T' ms, explicit_h_ord (ord_of ex_tbl) ex_grp = Some (T', ms) ->
  occurrences 8%N (map fst ms) = 1 /\ occurrences 9%N (map snd ms) = 1 /\ occurrences 2%N (map fst ms) = 0.
Proof.
  intros T' ms E.
  pose proof (explicit_h_ord_usage (ord_of ex_tbl) (ord_of_in ex_tbl) (ord_of_nodup ex_tbl) ex_grp T' ms E) as U.
  assert (Hex : pairs_exactb ex_grp = true) by reflexivity.
  pose proof (explicit_h_ord_usage_exact (ord_of ex_tbl) (ord_of_in ex_tbl) (ord_of_nodup ex_tbl) ex_grp T' ms E Hex) as X.
  split; [|split].
  - rewrite (proj1 (U 8%N)). reflexivity.
  - rewrite (X 9%N). reflexivity.
  - rewrite (proj1 (U 2%N)). reflexivity.
Qed.
