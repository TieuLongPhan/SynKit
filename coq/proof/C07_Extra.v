(** C07 — find_graph_isomorphism / graph_isomorphism without matchers, completeness and the max_mappings slice
    of get_mappings, histories with in-place edits.  Stdlib lists. *)
From Coq Require Import List NArith Bool Arith Lia Permutation.
From SK Require Import lib.Tok lib.LGraph lib.Mono model.C07_Model
  proof.C07_Spec proof.C07_History proof.C07_Filters proof.C07_Main proof.C07_WL.
Import ListNotations.

Lemma iso_degs nm em G1 G2 f : gwf G1 -> gwf G2 -> iso_map nm em G1 G2 f -> degs G1 = degs G2.
Proof.
  intros W1 W2 Hi. pose proof (iso_sizes _ _ _ _ _ W1 W2 Hi) as En. destruct Hi as (He & _).
  unfold degs.
  rewrite <- (sort_perm _ _ (Permutation_map (deg_label G1) (emb_nodes_perm _ _ _ _ _ _ W1 W2 En He))), map_map.
  f_equal. apply map_ext_in. intros u Iu. unfold deg_label.
  rewrite <- (Permutation_length (wl_nbrs nm em G1 G2 f W1 W2 En He u Iu)), map_length. reflexivity.
Qed.

Lemma iso_n_edges nm em G1 G2 f : gwf G1 -> gwf G2 -> iso_map nm em G1 G2 f -> n_edges G1 = n_edges G2.
Proof.
  intros W1 W2 Hi. apply Nat.le_antisymm.
  - destruct (iso_inverse _ _ _ _ _ Hi) as ((He' & _) & _). eapply emb_n_edges; eauto.
  - destruct Hi as (He & _). eapply emb_n_edges; eauto.
Qed.

(** the fast invariant check of find_graph_isomorphism (node count, edge count, sorted degree sequence) is a necessary condition *)
Lemma fgi_fast_necessary nm em G1 G2 f : gwf G1 -> gwf G2 -> iso_map nm em G1 G2 f -> fgi_fast G1 G2 = true.
Proof.
  intros W1 W2 Hi. unfold fgi_fast.
  rewrite (iso_sizes _ _ _ _ _ W1 W2 Hi), (iso_n_edges _ _ _ _ _ W1 W2 Hi), (iso_degs _ _ _ _ _ W1 W2 Hi), !Nat.eqb_refl. simpl.
  apply bll_eqb_eq. reflexivity.
Qed.

Section Extra.
Variable vf2b : bool -> (attrs -> attrs -> bool) -> (attrs -> attrs -> bool) -> graph -> graph -> bool.
Variable enum : (attrs -> attrs -> bool) -> (attrs -> attrs -> bool) -> graph -> graph -> list mapping.
Hypothesis VB : vf2b_contract vf2b.

Theorem giso0_spec g1 g2 : gwf g1 -> gwf g2 ->
  (giso0 vf2b g1 g2 = true <-> exists f, iso_map any_attrs any_attrs g1 g2 f).
Proof. intros W1 W2. apply is_isomorphic_spec; auto. Qed.

(** find_graph_isomorphism returns a mapping (not None) iff an isomorphism exists, whether or not the fast invariant check runs;
    default matchers: element / atom_map / hcount EQUAL (defaults "*", 0, 0), order equal (default 1); no matchers: structure only *)
Definition fgi_nm (ud : bool) (dstar dzero : N) : attrs -> attrs -> bool :=
  if ud then nm_sub [(1%N, dstar); (5%N, dzero); (0%N, 0%N)] else any_attrs.
Definition fgi_em (ud : bool) (done : N) : attrs -> attrs -> bool :=
  if ud then (fun h p => N.eqb (getd 4 done h) (getd 4 done p)) else any_attrs.

Theorem fgi_spec ud fast dstar dzero done g1 g2 : gwf g1 -> gwf g2 ->
  (fgi vf2b ud fast dstar dzero done g1 g2 = true <-> exists f, iso_map (fgi_nm ud dstar dzero) (fgi_em ud done) g1 g2 f).
Proof.
  intros W1 W2. apply filtered_iff.
  - intros (f & Hi). apply (fgi_fast_necessary _ _ _ _ f W1 W2 Hi).
  - destruct ud; [apply is_isomorphic_spec; auto | apply giso0_spec; auto].
Qed.

Theorem fgi_fast_transparent ud dstar dzero done g1 g2 : gwf g1 -> gwf g2 ->
  fgi vf2b ud true dstar dzero done g1 g2 = fgi vf2b ud false dstar dzero done g1 g2.
Proof. intros W1 W2. apply bool_iff. rewrite !fgi_spec; auto. tauto. Qed.

(** stronger oracle contract for the enumeration: every embedding is listed (as a mapping agreeing with it on the pattern's nodes),
    no mapping twice *)
Definition enum_complete (en : (attrs -> attrs -> bool) -> (attrs -> attrs -> bool) -> graph -> graph -> list mapping) : Prop :=
  forall nm em H P, gwf H -> gwf P ->
    NoDup (en nm em H P) /\
    (forall f, emb true nm em H P f -> exists m, In m (en nm em H P) /\ forall u, In u (node_ids P) -> mfun m u = f u).

Definition set_mm (e : engine) (mm : option N) : engine := Eng (e_na e) (e_ea e) (e_wl e) mm.
Definition shortcut (H P : graph) : bool := (n_nodes P =? n_nodes H) && (n_edges P =? n_edges H).

Hypothesis EC : enum_complete enum.

(** unlimited get_mappings outside the equal-size shortcut: every embedding of the pattern is returned, none twice *)
Theorem get_mappings_complete e H P : gwf H -> gwf P -> e_mm e = None -> shortcut H P = false ->
  NoDup (get_mappings_p vf2b enum e H P) /\
  (forall f, emb true (nm_eng e) (em_eng e) H P f ->
     exists m, In m (get_mappings_p vf2b enum e H P) /\ forall u, In u (node_ids P) -> mfun m u = f u).
Proof.
  intros WH WP Hmm Hs. destruct (EC (nm_eng e) (em_eng e) H P WH WP) as (Nd & Cp).
  unfold get_mappings_p. unfold shortcut in Hs. rewrite Hs, Hmm. simpl. split.
  - destruct (negb (pre_check_p e H P)); [constructor | exact Nd].
  - intros f He. rewrite (pre_check_necessary e _ _ H P WH WP (nm_eng_respects e) (ex_intro _ f He)). simpl. apply Cp. exact He.
Qed.

(** max_mappings = k: the result is the first k mappings of the unlimited result (k >= 1, or outside the shortcut) *)
Theorem get_mappings_slice e k H P : (shortcut H P = false \/ (1 <= N.to_nat k)%nat) ->
  get_mappings_p vf2b enum (set_mm e (Some k)) H P = firstn (N.to_nat k) (get_mappings_p vf2b enum (set_mm e None) H P).
Proof.
  intros D. unfold get_mappings_p.
  change (pre_check_p (set_mm e (Some k)) H P) with (pre_check_p (set_mm e None) H P).
  change (nm_eng (set_mm e (Some k))) with (nm_eng (set_mm e None)). change (em_eng (set_mm e (Some k))) with (em_eng (set_mm e None)).
  destruct (negb (pre_check_p (set_mm e None) H P)); [rewrite firstn_nil; reflexivity|].
  fold (shortcut H P). destruct (shortcut H P) eqn:S; [|reflexivity].
  destruct D as [D|D]; [discriminate|]. destruct (N.to_nat k) as [|n]; [lia|].
  destruct (is_isomorphic vf2b (nm_eng (set_mm e None)) (em_eng (set_mm e None)) H P); [|reflexivity].
  destruct (enum (nm_eng (set_mm e None)) (em_eng (set_mm e None)) H P) as [|m r]; [reflexivity|]. simpl. rewrite firstn_nil. reflexivity.
Qed.

(** the reference semantics: every query answered by the cache-free functions on the CURRENT graph values *)
Fixpoint hist_pure (gs0 cur : list graph) (es : list engine) (hs : list hstep) : list tok :=
  match hs with
  | [] => []
  | HQ q :: r => step_p vf2b enum cur es q :: hist_pure gs0 cur es r
  | HEdit i k :: r => hist_pure gs0 (set_nth cur i (gnth gs0 k)) es r
  | HNew i k :: r => hist_pure gs0 (set_nth cur i (gnth gs0 k)) es r
  end.

Lemma pre_check_wl_off_any e hi H pi P c : e_wl e = false -> pre_check e hi H pi P c = (pre_check_p e H P, c).
Proof.
  intros Hw. unfold pre_check, pre_check_p. rewrite Hw. simpl.
  destruct ((n_nodes H <? n_nodes P) || (n_edges H <? n_edges P)); reflexivity.
Qed.

Lemma step_wl_off gs es q c : (forall e, e_wl (enth es e) = false) -> step vf2b enum gs es q c = (step_p vf2b enum gs es q, c).
Proof.
  intros Hw. destruct (step_via_pre vf2b enum gs es q c) as [E|(e & hi & pi & E & V)]; [exact E|].
  rewrite (surjective_pairing (step vf2b enum gs es q c)), E, V; rewrite pre_check_wl_off_any; auto.
Qed.

Lemma enth_wl_off es : Forall (fun e => e_wl e = false) es -> forall k, e_wl (enth es k) = false.
Proof.
  intros F k. unfold enth. revert k. induction F as [|e es He F IH]; intros [|k]; simpl; auto.
Qed.

(** engines that do not use the WL filter never read or write the cache: with them every answer of a history WITH in-place edits is
    the cache-free answer on the current graph values, from any cache state *)
Theorem edits_wl_off gs0 es hs : Forall (fun e => e_wl e = false) es ->
  forall cur c, fst (run_hist vf2b enum gs0 cur es hs c) = hist_pure gs0 cur es hs.
Proof.
  intros F. pose proof (enth_wl_off es F) as Hw. induction hs as [|[q|i k|i k] hs IH]; intros cur c; simpl; auto.
  rewrite (step_wl_off cur es q c Hw). specialize (IH cur c). destruct (run_hist vf2b enum gs0 cur es hs c) as [ts c''].
  simpl in *. rewrite IH. reflexivity.
Qed.

(** a history without edits is an ordinary history (so C07_no_history applies) *)
Theorem hist_no_edits gs0 cur es qs c :
  run_hist vf2b enum gs0 cur es (map HQ qs) c = (run_from vf2b enum cur es qs c, end_cache vf2b enum cur es qs c).
Proof.
  revert c. induction qs as [|q qs IH]; intros c; simpl; [reflexivity|].
  destruct (step vf2b enum cur es q c) as [t c'] eqn:E. rewrite IH. reflexivity.
Qed.

(** replacing the value of object i keeps the invariant as soon as the entries of i are right for the new value: up to the first
    edit, and again after an edit whenever the edited object has no cache entry, the invariant holds *)
Lemma gnth_set_nth_other {X} (d : X) gs i gi g' : gi <> i -> nth gi (set_nth gs i g') d = nth gi gs d.
Proof.
  revert gi i. induction gs as [|x gs IH]; intros [|gi] [|i] Hne; simpl; auto; try congruence.
Qed.

Lemma gnth_set_nth_same {X} (d : X) gs i g' : (i < length gs)%nat -> nth i (set_nth gs i g') d = g'.
Proof. revert i. induction gs as [|x gs IH]; intros [|i] Hl; simpl in *; try lia; auto. apply IH. lia. Qed.

Lemma set_nth_keeps_inv gs i g' c : cache_inv gs c ->
  (forall na h, cache_get (i, na) c = Some h -> h = wl1_hash na (gnth (set_nth gs i g') i)) -> cache_inv (set_nth gs i g') c.
Proof.
  intros Hc Hi gi na h E. destruct (Nat.eq_dec gi i) as [->|Hne]; [auto|].
  rewrite (Hc gi na h E). f_equal. symmetry. apply gnth_set_nth_other. exact Hne.
Qed.

Theorem edit_keeps_inv gs i g' c : cache_inv gs c ->
  (forall na h, cache_get (i, na) c = Some h -> h = wl1_hash na g') -> (i < length gs)%nat ->
  cache_inv (set_nth gs i g') c.
Proof. intros Hc Hi Hl. apply set_nth_keeps_inv; auto. unfold gnth. rewrite gnth_set_nth_same; auto. Qed.

(** [drop_obj i] forgets exactly the entries of object i *)
Lemma cache_get_drop i gi na c : cache_get (gi, na) (drop_obj i c) = if Nat.eqb gi i then None else cache_get (gi, na) c.
Proof.
  unfold drop_obj. induction c as [|[[gj nb] h] r IH]; simpl; [destruct (Nat.eqb gi i); reflexivity|].
  destruct (Nat.eqb_spec gj i) as [->|Hj]; simpl; rewrite ?IH; destruct (ckey_eqb (gi, na) (_, nb)) eqn:K; auto;
    apply ckey_eqb_eq in K; inversion K; subst.
  - rewrite Nat.eqb_refl. reflexivity.
  - apply Nat.eqb_neq in Hj. rewrite Hj. reflexivity.
Qed.

(** a NEW object at index i keeps the cache invariant whatever value it holds: the entries of the old object are gone *)
Theorem new_object_keeps_inv gs i g' c : cache_inv gs c -> cache_inv (set_nth gs i g') (drop_obj i c).
Proof.
  intros Hc. apply set_nth_keeps_inv.
  - intros gi na h E. rewrite cache_get_drop in E. destruct (Nat.eqb gi i); [discriminate | apply Hc; exact E].
  - intros na h E. rewrite cache_get_drop, Nat.eqb_refl in E. discriminate.
Qed.

(** the general rule behind C07_edit_uncached / C07_new_objects (and the oracle's exemption rule): a history with in-place edits
    and new objects answers like the cache-free functions as long as every in-place edit hits an object that has NO cache entry at
    that moment (never compared by a filtering engine at equal order since it came into being) *)
Fixpoint edits_uncached (gs0 cur : list graph) (es : list engine) (hs : list hstep) (c : cache) : Prop :=
  match hs with
  | [] => True
  | HQ q :: r => edits_uncached gs0 cur es r (snd (step vf2b enum cur es q c))
  | HEdit i k :: r => (forall na, cache_get (i, na) c = None) /\ edits_uncached gs0 (set_nth cur i (gnth gs0 k)) es r c
  | HNew i k :: r => edits_uncached gs0 (set_nth cur i (gnth gs0 k)) es r (drop_obj i c)
  end.

Lemma uncached_edit_keeps_inv gs i g' c : cache_inv gs c -> (forall na, cache_get (i, na) c = None) -> cache_inv (set_nth gs i g') c.
Proof. intros Hc Hn. apply set_nth_keeps_inv; auto. intros na h E. rewrite Hn in E. discriminate. Qed.

Theorem safe_edits_harmless gs0 es hs : forall cur c, cache_inv cur c -> edits_uncached gs0 cur es hs c ->
  fst (run_hist vf2b enum gs0 cur es hs c) = hist_pure gs0 cur es hs.
Proof.
  induction hs as [|[q|i k|i k] hs IH]; intros cur c Hc Hs; simpl in *; auto.
  - destruct (step_pure vf2b enum cur es q c Hc) as (E & H'). destruct (step vf2b enum cur es q c) as [t c']. simpl in *.
    specialize (IH cur c' H' Hs). destruct (run_hist vf2b enum gs0 cur es hs c') as [ts c'']. simpl in *. congruence.
  - destruct Hs as (Hn & Hs). apply IH; auto. apply uncached_edit_keeps_inv; auto.
  - apply IH; auto. apply new_object_keeps_inv. exact Hc.
Qed.

(** histories in which new graph objects appear (derived from other objects, rebuilt, ...) but no object is edited in place after it
    was queried: EVERY engine — filtering or not — answers every query like the cache-free functions on the current graph values *)
Definition no_edits (hs : list hstep) : Prop := forall i k, ~ In (HEdit i k) hs.

Lemma no_edits_uncached gs0 es hs : no_edits hs -> forall cur c, edits_uncached gs0 cur es hs c.
Proof.
  induction hs as [|[q|i k|i k] hs IH]; intros Hn cur c; simpl; auto; try (apply IH; intros i' k' I; apply (Hn i' k'); right; exact I).
  exfalso. apply (Hn i k). left. reflexivity.
Qed.

Theorem new_objects_harmless gs0 es hs : no_edits hs ->
  forall cur c, cache_inv cur c -> fst (run_hist vf2b enum gs0 cur es hs c) = hist_pure gs0 cur es hs.
Proof. intros Hn cur c Hc. apply safe_edits_harmless; auto. apply no_edits_uncached. exact Hn. Qed.
End Extra.

(** the verified enumerator is complete *)
Theorem monos_g_complete_contract : enum_complete (monos_g true).
Proof.
  intros nm em H P WH WP. split.
  - apply monos_nodup. apply gwf_nodup. exact WH.
  - intros f He. apply monos_g_complete; auto. apply gwf_nodup. exact WP.
Qed.
