(** C03 — completeness of the pair ids handed out by _strip_explicit_h (default mode, templates with the same element on
    both sides of every atom and no h_pairs of their own): every removed hydrogen has ONE pair id of its own, and every
    non-hydrogen atom bonded to it in the template (on either side) carries that id in the prepared rule.  Together with
    [synrule_default_pairs]: two rule atoms share a pair id exactly when they are bonded to one removed hydrogen. *)
From Coq Require Import List NArith ZArith Bool.
From SK Require Import lib.Tok lib.LGraph model.C03_Model proof.C03_Proof proof.C03_Glue proof.C03_Backward proof.C03_Skeleton
                       proof.C03_StripCounts proof.C03_PairIds proof.C03_StripExact proof.C03_StripCor.
Import ListNotations.
Local Open Scope Z_scope.

Definition bstep_i (pid : option N) (g' : its) (y : N) : its := if is_H_i g' y then g' else upd_node g' y (bump_i pid).

Lemma hp_of_bump_in pid A p : In p (hp_of A) -> In p (hp_of (bump_i pid A)).
Proof.
  unfold hp_of, bump_i. cbn [i_hp]. destruct pid as [q|]; [|auto]. unfold hp_append.
  destruct (i_hp A); simpl; intros I; [apply in_or_app; auto|destruct I].
Qed.
Lemma hp_of_bump_new p A : In p (hp_of (bump_i (Some p) A)).
Proof. unfold hp_of, bump_i. cbn [i_hp]. unfold hp_append. destruct (i_hp A); [apply in_or_app; right|]; left; reflexivity. Qed.

Lemma bstep_i_spec pid (g : its) y x A : NoDup (node_ids g) -> In (x, A) (gnodes g) ->
  node_ids (bstep_i pid g y) = node_ids g /\
  exists A', In (x, A') (gnodes (bstep_i pid g y)) /\ a_el (iG A') = a_el (iG A) /\
             (forall p, In p (hp_of A) -> In p (hp_of A')) /\
             (forall p, pid = Some p -> y = x -> N.eqb (a_el (iG A)) EL_H = false -> In p (hp_of A')).
Proof.
  intros Hnd I. unfold bstep_i. destruct (is_H_i g y) eqn:EH.
  - split; [reflexivity|]. exists A. split; [exact I|]. split; [reflexivity|]. split; [auto|].
    intros p _ -> Hx. exfalso. unfold is_H_i, label in EH. rewrite (assoc_nodup_in x (gnodes g) A Hnd I) in EH. congruence.
  - split; [apply ids_upd|]. unfold upd_node; cbn [gnodes].
    destruct (N.eqb_spec x y) as [->|Ne].
    + exists (bump_i pid A). split; [|split; [reflexivity|split]].
      * apply in_map_iff. exists (y, A). cbn [fst snd]. rewrite N.eqb_refl. auto.
      * intros p. apply hp_of_bump_in.
      * intros p -> _ _. apply hp_of_bump_new.
    + exists A. split; [|split; [reflexivity|split; [auto|]]].
      * apply in_map_iff. exists (x, A). cbn [fst snd]. destruct (N.eqb_spec x y); [contradiction|auto].
      * intros p _ E. congruence.
Qed.

Lemma bump_fold_i_spec pid ns : forall (g : its) x A, NoDup (node_ids g) -> In (x, A) (gnodes g) ->
  exists A', In (x, A') (gnodes (fold_left (bstep_i pid) ns g)) /\ a_el (iG A') = a_el (iG A) /\
             (forall p, In p (hp_of A) -> In p (hp_of A')) /\
             (forall p, pid = Some p -> In x ns -> N.eqb (a_el (iG A)) EL_H = false -> In p (hp_of A')).
Proof.
  induction ns as [|y r IH]; intros g x A Hnd I.
  - exists A. repeat split; auto. intros p _ [].
  - cbn [fold_left]. destruct (bstep_i_spec pid g y x A Hnd I) as (Eids & A1 & I1 & E1 & M1 & N1).
    assert (Hnd1 : NoDup (node_ids (bstep_i pid g y))) by (rewrite Eids; exact Hnd).
    destruct (IH _ x A1 Hnd1 I1) as (A' & I' & E' & M' & N'). exists A'. split; [exact I'|]. split; [congruence|]. split; [auto|].
    intros p Ep [->|Ix] Hx.
    + apply M'. apply (N1 p Ep eq_refl Hx).
    + apply (N' p Ep Ix). rewrite E1. exact Hx.
Qed.

(** completeness invariant on the rule graph during step 2 *)
Definition cinv (tpl g : its) (asg : list (N * N)) : Prop :=
  forall p h, In (p, h) asg -> forall x, In x (nbrs tpl h) -> is_H_i tpl x = false -> has_node tpl x = true ->
  exists A, In (x, A) (gnodes g) /\ In p (hp_of A).

Lemma skel_entry tpl g R x : NoDup (node_ids tpl) -> skel tpl g R -> has_node tpl x = true -> ~ In x R ->
  exists A a0, In (x, A) (gnodes g) /\ label tpl x = Some a0 /\ a_el (iG A) = a_el (iG a0).
Proof.
  intros Hnd S Hx HnR. pose proof S as [_ S2 _]. unfold has_node in Hx. destruct (label tpl x) as [a0|] eqn:El; [|discriminate].
  unfold label in El. apply assoc_in in El.
  assert (Iq : In (x, a0) (filter (keepn R) (gnodes tpl))).
  { apply filter_In. split; [exact El|]. unfold keepn. cbn [fst]. rewrite mem_false by assumption. reflexivity. }
  destruct (Forall2_in_r _ _ _ _ S2 Iq) as ([k A] & IA & (E1 & E2 & _)). cbn [fst snd] in *. subst k.
  exists A, a0. split; [exact IA|]. split; [reflexivity|]. destruct (iG A), (iG a0); inversion E2; reflexivity.
Qed.

Lemma cinv_strip tpl g R asg h p : NoDup (node_ids tpl) -> skel tpl g R -> (forall x, In x R -> is_H_i tpl x = true) ->
  is_H_i tpl h = true -> has_node g h = true -> cinv tpl g asg -> cinv tpl (strip_i g h (Some p)) ((p, h) :: asg).
Proof.
  intros Hnd S HR Hh Hg C. pose proof (skel_nodup tpl g R Hnd S) as Ng.
  unfold strip_i. rewrite Hg. change (fold_left _ (nbrs g h) g) with (fold_left (bstep_i (Some p)) (nbrs g h) g).
  pose proof (skel_node_kept tpl g R h S Hg) as HhR.
  intros q h0 Iq x Ix Hx Hnx.
  assert (HxR : ~ In x R) by (intros Cx; rewrite (HR x Cx) in Hx; discriminate).
  assert (Nxh : x <> h) by (intros ->; congruence).
  assert (Keep : forall A', In (x, A') (gnodes (fold_left (bstep_i (Some p)) (nbrs g h) g)) ->
                 In (x, A') (gnodes (remove_node (fold_left (bstep_i (Some p)) (nbrs g h) g) h))).
  { intros A' I'. unfold remove_node; cbn [gnodes]. apply filter_In. split; [exact I'|]. cbn [fst]. destruct (N.eqb_spec x h); [contradiction|reflexivity]. }
  destruct Iq as [E|Iq].
  - inversion E; subst q h0. clear E.
    destruct (skel_entry tpl g R x Hnd S Hnx HxR) as (A & a0 & IA & La & Ea).
    destruct (bump_fold_i_spec (Some p) (nbrs g h) g x A Ng IA) as (A' & I' & _ & _ & N').
    exists A'. split; [apply Keep; exact I'|]. apply (N' p eq_refl).
    + (* x is still a neighbour of h in the current graph *)
      pose proof S as [_ _ S3]. apply nbrs_in in Ix. destruct Ix as (e & Ie & He). apply nbrs_in. exists e. split; [|exact He].
      rewrite S3. apply filter_In. split; [exact Ie|]. unfold keepe.
      assert (Mh : mem h R = false) by (apply mem_false; assumption).
      assert (Mx : mem x R = false) by (apply mem_false; assumption).
      destruct He as [[E1 E2]|(_ & E1 & E2)]; rewrite E1, E2, Mh, Mx; reflexivity.
    + rewrite Ea. unfold is_H_i in Hx. rewrite La in Hx. exact Hx.
  - destruct (C q h0 Iq x Ix Hx Hnx) as (A & IA & PA).
    destruct (bump_fold_i_spec (Some p) (nbrs g h) g x A Ng IA) as (A' & I' & _ & M' & _).
    exists A'. split; [apply Keep; exact I'|auto].
Qed.

Lemma strip_shared_complete tpl L0 R0 hs : NoDup (node_ids tpl) -> NoDup (node_ids L0) -> NoDup (node_ids R0) ->
  NoDup hs -> (forall h, In h hs -> is_H_i tpl h = true /\ has_node tpl h = true /\ has_node L0 h = true /\ has_node R0 h = true) ->
  forall (t : triple) pid R asg, (forall h, In h hs -> ~ In h R) -> (forall x, In x R -> is_H_i tpl x = true) ->
  inv3 tpl L0 R0 t R -> cinv tpl (fst (fst t)) asg ->
  exists asg', cinv tpl (fst (fst (fst (fold_left (fun (st : triple * N) h =>
         let '(rc, l, r, pid) := st in
         (strip_i rc h (Some pid), strip_m l h (Some pid), strip_m r h (Some pid), N.succ pid)) hs (t, pid))))) asg' /\
    (forall h, In h hs -> exists p, In (p, h) asg') /\ (forall q, In q asg -> In q asg').
Proof.
  intros NT NL NR Hnd. induction Hnd as [|h r Hx Hn IH]; intros Hall t pid R asg Hdis HR I C; [cbn [fold_left fst]; exists asg; split; [exact C|split; [intros h []|auto]]|].
  cbn [fold_left]. destruct t as [[rc l] rr].
  destruct (inv3_strip tpl L0 R0 rc l rr R h (Some pid) NL NR (Hall h (or_introl eq_refl)) (Hdis h (or_introl eq_refl)) I) as [Ec I'].
  pose proof (proj1 (Hall h (or_introl eq_refl))) as H1. pose proof I as [I1 _ _ _ _]. cbn [fst] in *.
  destruct (IH (fun x Ix => Hall x (or_intror Ix)) (strip_i rc h (Some pid), strip_m l h (Some pid), strip_m rr h (Some pid)) (N.succ pid) (h :: R) ((pid, h) :: asg))
    as (asg' & C' & A' & B').
  - intros x Ix [E|Cx]; [subst; contradiction|exact (Hdis x (or_intror Ix) Cx)].
  - intros x [<-|Ix]; [exact H1|exact (HR x Ix)].
  - exact I'.
  - cbn [fst]. exact (cinv_strip tpl rc R asg h pid NT I1 HR H1 Ec C).
  - exists asg'. split; [exact C'|]. split.
    + intros x [<-|Ix]; [exists pid; apply B'; left; reflexivity|exact (A' x Ix)].
    + intros q Iq. apply B'. right. exact Iq.
Qed.

Lemma refresh_types_hp_fwd rc l r rc' : refresh_types rc l r = Some rc' ->
  forall x A0, In (x, A0) (gnodes rc) -> exists A, In (x, A) (gnodes rc') /\ i_hp A = i_hp A0.
Proof.
  unfold refresh_types.
  match goal with |- context [fold_right ?f _ _] => set (F := f) end.
  destruct (fold_right F (Some []) (gnodes rc)) as [ns|] eqn:E; [|discriminate]. intros H. inversion H; subst. cbn [gnodes].
  clear H. revert ns E. induction (gnodes rc) as [|[k0 a0] r0 IH]; intros ns E x A0 I; [destruct I|].
  cbn [fold_right] in E. destruct (fold_right F (Some []) r0) as [ns0|]; [|unfold F in E; discriminate].
  unfold F at 1 in E. cbn [fst snd] in E.
  destruct (label l k0); [|discriminate]. destruct (label r k0); [|discriminate]. inversion E; subst. destruct I as [I|I].
  - inversion I; subst. eexists. split; [left; reflexivity|reflexivity].
  - destruct (IH ns0 eq_refl x A0 I) as (A & IA & EA). exists A. split; [right; exact IA|exact EA].
Qed.

Theorem synrule_default_pairs_complete (tpl rc : its) (l r : molg) :
  nodupb (node_ids tpl) = true -> (forall k a, In (k, a) (gnodes tpl) -> a_el (iH a) = a_el (iG a)) ->
  synrule tpl true = Some (rc, l, r) ->
  forall h, is_H_i tpl h = true -> heavy_nbr (side0 iG eG tpl) h = true -> heavy_nbr (side0 iH eH tpl) h = true ->
  exists p, forall x, In x (nbrs tpl h) -> is_H_i tpl x = false -> has_node tpl x = true ->
            exists A, label rc x = Some A /\ In p (hp_of A).
Proof.
  intros Hnd0 Hel H h Hh Hl Hr. pose proof (nodupb_NoDup _ Hnd0) as Hnd.
  destruct (synrule_default_pointwise tpl rc l r Hnd0 Hel H) as (R & _ & Memb & _ & _ & _ & Nrc & _).
  destruct (synrule_default_inv tpl rc l r H) as (rc1 & Es & Er). clear H.
  destruct (strip_exact tpl Hnd Hel rc1 l r Es) as (hs & Eh & _).
  pose proof (strip_value tpl Hnd Hel hs Eh) as Ev. rewrite Ev in Es. inversion Es as [Et]. clear Es.
  destruct (strip_shared_complete tpl _ _ (sort_N hs) Hnd (NL0 tpl Hnd) (NR0 tpl Hnd) (shared_hs_nodup tpl Hnd hs Eh) (shared_hs_nodes tpl Hnd hs Eh)
              (init_i (standardize_hydrogen tpl), side0 iG eG tpl, side0 iH eH tpl) 1%N [] [] (fun _ _ C => C) (fun x C => match C with end)
              (inv3_init tpl Hnd))
    as (asg & C & A & _).
  { intros p0 h0 []. }
  assert (C2 : cinv tpl (fst (fst (run2 tpl hs))) asg) by exact C. clear C. rename C2 into C. rewrite Et in C. cbn [fst] in C.
  pose proof (proj2 (shared_hs_iff tpl Hnd hs Eh h) (conj Hh (conj Hl Hr))) as Ih.
  destruct (A h Ih) as [p Ip]. exists p. intros x Ix Hx Hnx.
  destruct (C p h Ip x Ix Hx Hnx) as (A0 & IA0 & PA0).
  destruct (refresh_types_hp_fwd _ _ _ _ Er x A0 IA0) as (A1 & IA1 & EA1).
  exists A1. split; [apply assoc_nodup_in; assumption|]. unfold hp_of in *. rewrite EA1. exact PA0.
Qed.
