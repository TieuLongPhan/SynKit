(** C16 — bipartite view, part B: importing the exported graph gives back the network. *)
From stdpp Require Import gmap strings sets pretty sorting.
From SK Require Import lib.Tok model.C15_Model proof.C15_Proof model.C16_Model proof.C16_Defs proof.C16_Common proof.C16_BipA.
Local Open Scope string_scope.
Local Open Scope list_scope.

Lemma NoDup_omap {A B} (g : A → option B) (l : list A) :
  NoDup l → (∀ x y b, x ∈ l → y ∈ l → g x = Some b → g y = Some b → x = y) → NoDup (omap g l).
Proof.
  induction 1 as [|x l Hx Hnd IH]; intros Hinj; [constructor|]. cbn [omap list_omap].
  destruct (g x) as [b|] eqn:E.
  - apply NoDup_cons. split.
    + intros (y & Hy & Hgy)%elem_of_list_omap. assert (x = y) as -> by (eapply Hinj; [by left|by right|done|done]). done.
    + apply IH. intros ??? ??. apply Hinj; by right.
  - apply IH. intros ??? ??. apply Hinj; by right.
Qed.

Lemma sum_map_nodup (l : list (string * Z)) : NoDup l.*1 → sum_map l = list_to_map l.
Proof.
  intros Hnd. unfold sum_map. rewrite (foldl_insert_fresh_empty _ fst snd); [|done|].
  - f_equal. rewrite <-(list_fmap_id l) at 2. apply list_fmap_ext. by intros ? [].
  - intros m [s z] _ Hm. cbn in *. by rewrite Hm, Z.add_0_l.
Qed.
Lemma sum_map_of_map (l : list (string * Z)) (m : gmap string Z) :
  NoDup l → (∀ s z, (s, z) ∈ l ↔ m !! s = Some z) → sum_map l = m.
Proof.
  intros Hnd Hl. assert (l ≡ₚ map_to_list m) as Hperm.
  { apply NoDup_Permutation; [done|apply NoDup_map_to_list|]. intros [s z]. by rewrite Hl, elem_of_map_to_list. }
  assert (NoDup l.*1) as Hk by (rewrite Hperm; apply NoDup_fst_map_to_list).
  rewrite sum_map_nodup by done. rewrite (list_to_map_proper _ (map_to_list m)) by done. apply list_to_map_to_list.
Qed.

(** fold of conditional label assignments, started from an empty label map *)
Section mol_fold.
  Context {A : Type} (f : A → option (string * string)).
  Definition mol_step (acc : net) (x : A) : net :=
    match f x with
    | Some kv => if decide (kv.1 ∈ species acc) then set_mol acc kv.1 kv.2 else acc
    | None => acc
    end.
  Lemma mol_fold_spec (l : list A) (s : net) : mol s = ∅ →
    (∀ x y k v v', x ∈ l → y ∈ l → f x = Some (k, v) → f y = Some (k, v') → v = v') →
    edges (foldl mol_step s l) = edges s ∧ species (foldl mol_step s l) = species s ∧
    ∀ k v, mol (foldl mol_step s l) !! k = Some v ↔ ∃ x, x ∈ l ∧ f x = Some (k, v) ∧ k ∈ species s.
  Proof.
    intros Hm0. induction l as [|x l IH] using rev_ind; intros Hfun.
    - cbn. split; [done|]. split; [done|]. intros k v. rewrite Hm0, lookup_empty. split; [done|].
      by intros (? & ?%elem_of_nil & _).
    - pose proof (elem_of_snoc_l l x) as Hold. pose proof (elem_of_snoc_r l x) as Hnew.
      destruct IH as (He & Hs & Hm). { intros ????? ??. apply Hfun; by apply Hold. }
      rewrite foldl_app. cbn [foldl]. set (r := foldl mol_step s l) in *. unfold mol_step.
      destruct (f x) as [[k0 v0]|] eqn:E; cbn [fst snd].
      + destruct (decide (k0 ∈ species r)) as [Hin|Hnin].
        * cbn [set_mol edges species mol]. split; [done|]. split; [done|]. intros k v.
          rewrite Hs in Hin. rewrite lookup_insert_Some, Hm. split.
          -- intros [[<- <-]|[Hne (y & Hy & ?)]]; [exists x|exists y]; auto.
          -- intros (y & [Hy|Hq]%elem_of_snoc & Hfy & Hk).
             ++ destruct (decide (k0 = k)) as [->|Hne]; [|right; eauto].
                left. split; [done|]. eapply (Hfun x y k); [done|by apply Hold|done|done].
             ++ subst y. left. by simplify_eq.
        * split; [done|]. split; [done|]. intros k v. rewrite Hm. rewrite Hs in Hnin. split.
          -- intros (y & Hy & ?). exists y. auto.
          -- intros (y & [Hy| ->]%elem_of_snoc & Hfy & Hk); [eauto|by simplify_eq].
      + split; [done|]. split; [done|]. intros k v. rewrite Hm. split.
        * intros (y & Hy & ?). exists y. auto.
        * intros (y & [Hy| ->]%elem_of_snoc & Hfy & Hk); [eauto|congruence].
  Qed.

  (** when the labels offered are exactly those of [H] (all of them or none): the labels of the occurring species come back *)
  Lemma mol_fold_labels (b : bool) (H : net) (l : list A) (s : net) : mol s = ∅ → species s = occurring H →
    (∀ x k m, x ∈ l → f x = Some (k, m) → b = true ∧ mol H !! k = Some m) →
    (∀ k m, b = true → k ∈ occurring H → mol H !! k = Some m → ∃ x, x ∈ l ∧ f x = Some (k, m)) →
    edges (foldl mol_step s l) = edges s ∧ species (foldl mol_step s l) = species s ∧
    mol (foldl mol_step s l) = if b then filter (λ p, p.1 ∈ occurring H) (mol H) else ∅.
  Proof.
    intros Hm0 Hsp Hsound Hcompl. destruct (mol_fold_spec l s Hm0) as (He & Hs & Hmol).
    { intros x y k v v' Hx Hy Hfx Hfy. destruct (Hsound x k v Hx Hfx) as [_ ?]. destruct (Hsound y k v' Hy Hfy) as [_ ?].
      congruence. }
    split; [done|]. split; [done|]. apply map_eq. intros k. apply option_eq. intros v. rewrite Hmol, Hsp. split.
    - intros (x & Hx & Hfx & Hk). destruct (Hsound x k v Hx Hfx) as [-> ?]. by apply map_filter_lookup_Some.
    - destruct b; [|by rewrite lookup_empty]. intros [Hv Hk]%map_filter_lookup_Some.
      destruct (Hcompl k v eq_refl Hk Hv) as (x & ? & ?). eauto.
  Qed.
End mol_fold.

Section import.
  Context (fl : bflags) (ifl : iflags) (H : net) (G : bgraph) (Ms Rs : gmap string nid).
  Context (HS : bip_spec fl H G Ms Rs) (Hwf : wf_rxns H) (Heid : f_eid fl = true).
  (** what an arc carries for a coefficient: the coefficient itself, or nothing (read as 1) without `stoich` *)
  Definition cv (c : positive) : positive := if f_stoich fl then c else 1%positive.
  Definition cvs (sd : side) : side := cv <$> sd.
  Definition cvr (rx : rxn) : rxn := Rxn (r_rule rx) (cvs (r_lhs rx)) (cvs (r_rhs rx)).
  Lemma dom_cvs (sd : side) : dom (cvs sd) = dom sd.
  Proof. apply dom_fmap_L. Qed.

  Lemma node_of_species s n : Ms !! s = Some n → b_nodes G !! n = Some (sp_attrs fl H s).
  Proof. intros Hs. apply (bs_nodes _ _ _ _ _ HS). left. eauto. Qed.
  Lemma node_of_rxn e rx n : edges H !! e = Some rx → Rs !! e = Some n → b_nodes G !! n = Some (rx_attrs fl e (r_rule rx)).
  Proof. intros He Hn. apply (bs_nodes _ _ _ _ _ HS). right. eauto. Qed.
  Lemma label_of_species s n : Ms !! s = Some n → node_label G n = s.
  Proof. intros Hs. unfold node_label. by rewrite (node_of_species s n Hs). Qed.

  (** ** classification of the nodes *)
  Lemma classify_spec : ∃ spN rxN, classify ifl G = (spN, rxN) ∧
    (∀ n, n ∈ spN ↔ ∃ s, Ms !! s = Some n) ∧ (∀ n, n ∈ rxN ↔ ∃ e, Rs !! e = Some n).
  Proof.
    rewrite classify_eq. cbv zeta.
    set (sp := dom (filter (sp_node ifl) (b_nodes G))). set (rx := dom (filter (rx_node ifl) (b_nodes G))).
    assert (∀ n, n ∈ sp ↔ ∃ s, Ms !! s = Some n) as Hsp.
    { intros n. unfold sp. rewrite elem_of_dom. split.
      - intros [nd [Hnd Hk]%map_filter_lookup_Some]. unfold sp_node, untagged in Hk.
        apply (bs_nodes _ _ _ _ _ HS) in Hnd as [(s & Hs & ->)|(e & rx0 & _ & _ & ->)]; [eauto|].
        cbn in Hk. destruct Hk as [Hq|[[_ Hq] _]]; [discriminate Hq|by destruct Hq].
      - intros [s Hs]. exists (sp_attrs fl H s). apply map_filter_lookup_Some. split; [by apply node_of_species|].
        cbn. by left. }
    assert (∀ n, n ∈ rx ↔ ∃ e, Rs !! e = Some n) as Hrx.
    { intros n. unfold rx. rewrite elem_of_dom. split.
      - intros [nd [Hnd Hk]%map_filter_lookup_Some]. unfold rx_node, untagged in Hk.
        apply (bs_nodes _ _ _ _ _ HS) in Hnd as [(s & Hs & ->)|(e & rx0 & _ & ? & ->)]; [|eauto].
        cbn in Hk. destruct Hk as [Hq|[[Hq _] _]]; [discriminate Hq|by destruct Hq].
      - intros [e He]. destruct (proj1 (bs_Rdom _ _ _ _ _ HS e)) as [rx0 Hrx0]; [eauto|].
        exists (rx_attrs fl e (r_rule rx0)). apply map_filter_lookup_Some. split; [by eapply node_of_rxn|].
        cbn. by left. }
    destruct (decide (sp = ∅ ∧ rx = ∅)) as [[Hs0 Hr0]|_]; [|eauto].
    assert (b_arcs G = ∅) as Ha.
    { apply map_empty. intros k. destruct (b_arcs G !! k) as [a|] eqn:E; [|done].
      apply (bs_arcs _ _ _ _ _ HS) in E as (_ & e & _ & _ & _ & _ & nr & _ & He & _).
      assert (nr ∈ rx) as Hv by (apply Hrx; eauto). rewrite Hr0 in Hv. by apply elem_of_empty in Hv. }
    eexists _, _. split; [done|]. rewrite Ha, dom_empty_L, !set_map_empty. split; intros n.
    - rewrite <-Hsp, Hs0. done.
    - rewrite <-Hrx, Hr0. done.
  Qed.

  (** ** the coefficient maps read off the arcs *)
  Context (spN rxN : gset nid).
  Context (HspN : ∀ n, n ∈ spN ↔ ∃ s, Ms !! s = Some n) (HrxN : ∀ n, n ∈ rxN ↔ ∃ e, Rs !! e = Some n).

  Lemma occurs_side inc e rx s c : edges H !! e = Some rx → rside inc rx !! s = Some c → s ∈ occurring H.
  Proof.
    intros He Hc%elem_of_dom_2. apply elem_of_occurring. exists e, rx. split; [done|].
    destruct inc; [by apply elem_of_union_l|by apply elem_of_union_r].
  Qed.

  Lemma side_map_rxn inc e rx rnd : edges H !! e = Some rx → Rs !! e = Some rnd →
    side_map G spN rnd inc = Z.pos <$> cvs (rside inc rx).
  Proof.
    intros He Hr. unfold side_map. apply sum_map_of_map.
    - unfold side_contribs. apply NoDup_omap; [apply NoDup_map_to_list|].
      intros [[u v] a] [[u' v'] a'] [lbl z] Hx%elem_of_map_to_list Hy%elem_of_map_to_list. cbn.
      destruct (decide _) as [[Ht Ho]|]; [|done]. destruct (decide _) as [[Ht' Ho']|]; [|done].
      intros [= <- <-] [= Hlbl Hz].
      apply HspN in Ho as [s Hs]. apply HspN in Ho' as [s' Hs'].
      rewrite (label_of_species s _ Hs), (label_of_species s' _ Hs') in Hlbl. subst s'.
      assert ((u', v') = (u, v)) as [= -> ->] by (destruct inc; congruence). by assert (a' = a) as -> by congruence.
    - intros s z. unfold side_contribs, cvs. rewrite elem_of_list_omap, !lookup_fmap. split.
      + intros ([k a] & Hin%elem_of_map_to_list & Hg). cbn in Hg. destruct (decide _) as [[Ht Ho]|]; [|done].
        injection Hg as <- <-. apply HspN in Ho as [s' Hs'].
        apply (bs_arcs _ _ _ _ _ HS) in Hin as (inc0 & e0 & rx0 & s0 & c & ns & nr & He0 & Hr0 & Hs0 & Hc & -> & ->).
        (* an arc of the other kind at [rnd] would have a reaction node for a species node *)
        destruct inc, inc0; cbn in Ht, Hs'; subst; try (by exfalso; eapply (bs_disj _ _ _ _ _ HS)).
        all: assert (e0 = e) as -> by (by eapply (bs_Rinj _ _ _ _ _ HS)); assert (rx0 = rx) as -> by congruence.
        all: cbn in *; rewrite (label_of_species s0 ns Hs0); unfold side in *; rewrite Hc; cbn.
        all: unfold arc_attrs, cv; by destruct (f_stoich fl).
      + destruct ((rside inc rx : gmap string positive) !! s) as [c|] eqn:Hc; [|done]. cbn. intros [= <-].
        destruct (bs_Mocc _ _ _ _ _ HS s) as [ns Hsn]; [by eapply occurs_side|].
        exists (arc_key inc ns rnd, arc_attrs fl c (arc_role inc)). split.
        * apply elem_of_map_to_list. apply (bs_arcs _ _ _ _ _ HS). by exists inc, e, rx, s, c, ns, rnd.
        * destruct inc; cbn; rewrite decide_True by (split; [done|apply HspN; eauto]);
            rewrite (label_of_species s ns Hsn); unfold arc_attrs, cv; by destruct (f_stoich fl).
  Qed.

  (** ** the rebuild loop *)
  Definition nd_of (n : nid) : bnode := default (BNode None None None None None) (b_nodes G !! n).
  Definition rx_id_of (n : nid) : string := default "" (bn_eid (nd_of n)).
  Definition rx_lhs_of (n : nid) : side := normalize (map_to_list (side_map G spN n true)).
  Definition rx_rhs_of (n : nid) : side := normalize (map_to_list (side_map G spN n false)).
  Definition rx_rule_of (n : nid) : string := default (i_default_rule ifl) (bn_label (nd_of n)).

  Lemma rxn_node_facts n e : Rs !! e = Some n →
    ∃ rx, edges H !! e = Some rx ∧ bn_eid (nd_of n) = Some e ∧ rx_id_of n = e ∧ rx_lhs_of n = cvs (r_lhs rx) ∧ rx_rhs_of n = cvs (r_rhs rx) ∧
          rx_rule_of n = r_rule rx ∧ side_map G spN n true = Z.pos <$> cvs (r_lhs rx) ∧ side_map G spN n false = Z.pos <$> cvs (r_rhs rx).
  Proof.
    intros Hr. destruct (proj1 (bs_Rdom _ _ _ _ _ HS e)) as [rx Hrx]; [eauto|]. exists rx.
    unfold rx_id_of, rx_lhs_of, rx_rhs_of, rx_rule_of, nd_of. rewrite (node_of_rxn e rx n Hrx Hr). cbn. rewrite Heid. cbn.
    rewrite (side_map_rxn true e rx n Hrx Hr), (side_map_rxn false e rx n Hrx Hr), !normalize_pos_map. done.
  Qed.

  Lemma rxn_nonempty e rx : edges H !! e = Some rx → ¬ (r_lhs rx = ∅ ∧ r_rhs rx = ∅).
  Proof. intros He. destruct (Hwf e rx He) as [Hem _]. unfold rxn_empty in Hem. by apply bool_decide_eq_false in Hem. Qed.

  Lemma import_rxn_step acc n e : Rs !! e = Some n → import_rxn ifl G spN acc n = rebuild_step rx_id_of rx_lhs_of rx_rhs_of rx_rule_of acc n.
  Proof.
    intros Hr. destruct (rxn_node_facts n e Hr) as (rx & Hrx & Hid & Hfid & Hl & Hr' & Hrule & Hin & Hout).
    unfold import_rxn, rebuild_step. destruct acc as [s [er|]]; [done|]. cbv zeta.
    fold (nd_of n). rewrite decide_False.
    - rewrite Hid. fold (rx_lhs_of n) (rx_rhs_of n) (rx_rule_of n). by rewrite Hfid.
    - rewrite Hin, Hout. intros [Ha%fmap_empty_inv%fmap_empty_inv Hb%fmap_empty_inv%fmap_empty_inv]. by eapply rxn_nonempty.
  Qed.

  Lemma import_result : ∃ s',
    foldl (import_rxn ifl G spN) (empty_net, None) (merge_sort nid_le (elements rxN)) = (s', None) ∧
    edges s' = cvr <$> edges H ∧ species s' = occurring H ∧ mol s' = ∅.
  Proof.
    set (l := merge_sort nid_le (elements rxN)).
    assert (l ≡ₚ elements rxN) as Hperm by apply merge_sort_Permutation.
    assert (∀ n, n ∈ l ↔ ∃ e, Rs !! e = Some n) as Hl.
    { intros n. by rewrite Hperm, elem_of_elements, HrxN. }
    assert (NoDup l) as Hnd by (rewrite Hperm; apply NoDup_elements).
    rewrite (foldl_ext_in _ (rebuild_step rx_id_of rx_lhs_of rx_rhs_of rx_rule_of)).
    2:{ intros acc n [e He]%Hl. by eapply import_rxn_step. }
    assert (NoDup (rx_id_of <$> l)) as Hndf.
    { apply NoDup_fmap_2_strong; [|done]. intros x y [ex Hx]%Hl [ey Hy]%Hl Hxy.
      destruct (rxn_node_facts x ex Hx) as (_ & _ & _ & Hfx & _). destruct (rxn_node_facts y ey Hy) as (_ & _ & _ & Hfy & _).
      congruence. }
    destruct (rebuild_fold rx_id_of rx_lhs_of rx_rhs_of rx_rule_of l Hndf) with (s := empty_net) as (s' & Hf & He & Hs & Hm).
    { apply Forall_forall. intros n [e He]%Hl. destruct (rxn_node_facts n e He) as (rx & Hrx & _ & _ & -> & -> & _).
      intros [Ha%fmap_empty_inv Hb%fmap_empty_inv]. by eapply rxn_nonempty. }
    { done. }
    exists s'. split; [done|]. split_and!.
    - rewrite He. cbn [edges empty_net]. rewrite (right_id_L ∅ (∪)). apply map_eq. intros e. rewrite lookup_fmap.
      destruct (edges H !! e) as [rx|] eqn:Hrx; cbn [fmap option_fmap option_map].
      + destruct (proj2 (bs_Rdom _ _ _ _ _ HS e)) as [n Hn]; [eauto|].
        destruct (rxn_node_facts n e Hn) as (rx' & Hrx' & _ & Hfid & Hl' & Hr' & Hrule & _).
        assert (rx' = rx) as -> by congruence.
        apply (elem_of_list_to_map_1 _ e (cvr rx)); [by rewrite rebuilt_fst|].
        apply elem_of_list_fmap. exists n. split; [|apply Hl; eauto]. unfold rebuilt.
        rewrite Hfid, Hl', Hr', Hrule, norm_rule_id by (by destruct (Hwf e rx Hrx)). done.
      + apply not_elem_of_list_to_map_1. rewrite rebuilt_fst. intros (n & -> & [e' He']%Hl)%elem_of_list_fmap.
        destruct (rxn_node_facts n e' He') as (rx & Hrx' & _ & Hfid & _). congruence.
    - rewrite Hs. cbn [species empty_net]. rewrite (left_id_L ∅ (∪)). apply set_eq. intros x.
      rewrite elem_of_union_list, elem_of_occurring. split.
      + intros (X & (n & -> & [e He']%Hl)%elem_of_list_fmap & Hx).
        destruct (rxn_node_facts n e He') as (rx & Hrx & _ & _ & Hl' & Hr' & _). rewrite Hl', Hr' in Hx.
        rewrite !dom_cvs in Hx. by exists e, rx.
      + intros (e & rx & Hrx & Hx). destruct (proj2 (bs_Rdom _ _ _ _ _ HS e)) as [n Hn]; [eauto|].
        destruct (rxn_node_facts n e Hn) as (rx' & Hrx' & _ & _ & Hl' & Hr' & _). assert (rx' = rx) as -> by congruence.
        exists (dom (rx_lhs_of n) ∪ dom (rx_rhs_of n)). split; [|by rewrite Hl', Hr', !dom_cvs].
        apply elem_of_list_fmap. exists n. split; [done|]. apply Hl. eauto.
    - by rewrite Hm.
  Qed.

  (** ** molecule labels *)
  Definition sp_mol_of (n : nid) : option (string * string) := (λ m, (node_label G n, m)) <$> (b_nodes G !! n ≫= bn_mol).

  Lemma import_mols_step s : import_mols G spN s = foldl (mol_step sp_mol_of) s (elements spN).
  Proof.
    unfold import_mols. apply foldl_ext_in. intros acc n _. unfold mol_step, sp_mol_of.
    destruct (b_nodes G !! n ≫= bn_mol); done.
  Qed.

  Lemma import_mols_spec s : mol s = ∅ → species s = occurring H →
    edges (import_mols G spN s) = edges s ∧ species (import_mols G spN s) = species s ∧
    mol (import_mols G spN s) = if f_mol fl then filter (λ p, p.1 ∈ occurring H) (mol H) else ∅.
  Proof.
    intros Hm0 Hsp. rewrite import_mols_step.
    assert (∀ n, n ∈ elements spN → ∃ s0, Ms !! s0 = Some n ∧ sp_mol_of n = (λ m, (s0, m)) <$> (if f_mol fl then mol H !! s0 else None)) as Hf.
    { intros n [s0 Hs0]%elem_of_elements%HspN. exists s0. split; [done|]. unfold sp_mol_of.
      rewrite (label_of_species s0 n Hs0), (node_of_species s0 n Hs0). done. }
    apply mol_fold_labels; [done|done| |].
    - intros n k m Hn Hfn. destruct (Hf n Hn) as (s0 & Hs0 & Hfn'). rewrite Hfn' in Hfn.
      destruct (f_mol fl); [|done]. destruct (mol H !! s0) eqn:E; [|done]. cbn in Hfn. by injection Hfn as -> ->.
    - intros k m Hfm Hk Hv. destruct (bs_Mocc _ _ _ _ _ HS k Hk) as [n Hn].
      assert (n ∈ elements spN) as Hin by (apply elem_of_elements, HspN; eauto).
      exists n. split; [done|]. destruct (Hf n Hin) as (s0 & Hs0 & ->).
      assert (s0 = k) as -> by (eapply (bs_Minj _ _ _ _ _ HS); eauto). by rewrite Hfm, Hv.
  Qed.
End import.

(** * the round trip *)
(** every flag combination that exports the ids: with `stoich` the reactions come back, without it their supports (every
    coefficient 1) *)
Lemma bipartite_roundtrip_gen (fl : bflags) (ifl : iflags) (H : net) :
  wf16 H → f_eid fl = true → bip_names_ok fl H →
  (bipartite_to_hypergraph ifl (hypergraph_to_bipartite fl H)).2 = None ∧
  edges (bipartite_to_hypergraph ifl (hypergraph_to_bipartite fl H)).1 = cvr fl <$> edges H ∧
  species (bipartite_to_hypergraph ifl (hypergraph_to_bipartite fl H)).1 = occurring H ∧
  mol (bipartite_to_hypergraph ifl (hypergraph_to_bipartite fl H)).1
    = if f_mol fl && i_mol ifl then filter (λ p, p.1 ∈ occurring H) (mol H) else ∅.
Proof.
  intros (Hwf & Hwsp & _ & _) Heid Hnames.
  destruct (export_spec fl H Hwsp Hnames) as (Ms & Rs & HS).
  set (G := hypergraph_to_bipartite fl H) in *.
  destruct (classify_spec fl ifl H G Ms Rs HS) as (spN & rxN & Hcl & HspN & HrxN).
  unfold bipartite_to_hypergraph. rewrite Hcl.
  destruct (import_result fl ifl H G Ms Rs HS Hwf Heid spN rxN HspN HrxN) as (s' & -> & He & Hs & Hm).
  cbn [fst snd]. destruct (i_mol ifl).
  - destruct (import_mols_spec fl H G Ms Rs HS spN HspN s' Hm Hs) as (He' & Hs' & Hm').
    rewrite He', Hs', Hm', andb_true_r. done.
  - rewrite andb_false_r. done.
Qed.

Lemma cvr_id fl rx : f_stoich fl = true → cvr fl rx = rx.
Proof.
  intros Hs. unfold cvr, cvs, cv. rewrite Hs. destruct rx as [r l p]. cbn. f_equal; apply map_fmap_id.
Qed.

Lemma bipartite_roundtrip (fl : bflags) (ifl : iflags) (H : net) :
  wf16 H → f_eid fl = true → f_stoich fl = true → bip_names_ok fl H →
  (bipartite_to_hypergraph ifl (hypergraph_to_bipartite fl H)).2 = None ∧
  edges (bipartite_to_hypergraph ifl (hypergraph_to_bipartite fl H)).1 = edges H ∧
  species (bipartite_to_hypergraph ifl (hypergraph_to_bipartite fl H)).1 = occurring H ∧
  mol (bipartite_to_hypergraph ifl (hypergraph_to_bipartite fl H)).1
    = if f_mol fl && i_mol ifl then filter (λ p, p.1 ∈ occurring H) (mol H) else ∅.
Proof.
  intros Hwf Heid Hsto Hnames. destruct (bipartite_roundtrip_gen fl ifl H Hwf Heid Hnames) as (H1 & H2 & H3 & H4).
  split; [done|]. split; [|done]. rewrite H2. rewrite (map_fmap_ext _ id); [apply map_fmap_id|].
  intros e rx _. by apply cvr_id.
Qed.

(** * non-vacuity *)
Definition ex_bip_net : net :=
  mk_net ["K"] [(None, "r", [("A", 2%Z)], [("B", 1%Z); ("A", 1%Z)]); (None, "q", [("B", 1%Z)], [("C", 12%Z)]);
                (Some "x", "r", [("B", 1%Z)], [("C", 1%Z)]); (None, "r", [], [("A", 3%Z)])] [("A", "CCO"); ("K", "kk")].
Definition ex_fl_str : bflags := BFlags (Some "S:") (Some "R:") 0 1 true true true false true true.
Definition ex_fl_int : bflags := BFlags (Some "S:") (Some "R:") 5 7 true false false true true true.
Definition ex_fl_bare : bflags := BFlags None None 0 1 true true true false true true.
Definition ex_bip_graph : bgraph := hypergraph_to_bipartite ex_fl_int ex_bip_net.
Example ex_bip_premises :
  bool_decide (wf16 ex_bip_net) = true ∧ bool_decide (bip_names_ok ex_fl_str ex_bip_net) = true ∧
  bool_decide (bip_names_ok ex_fl_int ex_bip_net) = true ∧ bool_decide (bip_names_ok ex_fl_bare ex_bip_net) = true ∧
  size (edges ex_bip_net) = 4%nat ∧ size (b_nodes ex_bip_graph) = 7%nat ∧ size (b_arcs ex_bip_graph) = 8%nat ∧
  bool_decide (occurring ex_bip_net = {[ "A"; "B"; "C" ]}) = true.
Proof. split_and!; by vm_compute. Qed.
(** without `stoich` the supports come back: 2A >> B + A (id r_1) returns as A >> A + B, 12 C as C *)
Definition ex_fl_nosto : bflags := BFlags (Some "S:") (Some "R:") 0 1 false true true false true true.
Definition ex_bip_nosto_back : net := (bipartite_to_hypergraph (default_iflags true) (hypergraph_to_bipartite ex_fl_nosto ex_bip_net)).1.
Example ex_bip_nostoich :
  bool_decide (edges ex_bip_nosto_back = cvr ex_fl_nosto <$> edges ex_bip_net) = true ∧
  bool_decide (edges ex_bip_nosto_back = edges ex_bip_net) = false ∧
  (r_lhs <$> edges ex_bip_nosto_back !! "r_1") = Some {[ "A" := 1%positive ]} ∧
  (r_lhs <$> edges ex_bip_net !! "r_1") = Some {[ "A" := 2%positive ]}.
Proof. split_and!; by vm_compute. Qed.

(** the name-clash premise is needed for un-prefixed string ids: species "r_1" and reaction id "r_1" share a node *)
Definition ex_bip_clash : net := mk_net [] [(None, "r", [("A", 1%Z)], [("r_1", 1%Z)])] [].
Definition ex_bip_clash_back : net := (bipartite_to_hypergraph (default_iflags true) (hypergraph_to_bipartite ex_fl_bare ex_bip_clash)).1.
Example ex_bip_names_needed :
  bool_decide (wf16 ex_bip_clash) = true ∧ bool_decide (bip_names_ok ex_fl_bare ex_bip_clash) = false ∧
  bool_decide (edges ex_bip_clash_back = edges ex_bip_clash) = false.
Proof. split_and!; by vm_compute. Qed.

Lemma default_prefixes_ok (fl : bflags) (H : net) : f_sp fl = Some "S:" → f_rp fl = Some "R:" → bip_names_ok fl H.
Proof. intros Hs Hr. right. intros s _ e _. rewrite Hs, Hr. done. Qed.
