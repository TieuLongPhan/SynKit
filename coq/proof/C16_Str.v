(** C16 — reaction strings: printing a network and parsing the lines back gives the same multiset of reactions. *)
From stdpp Require Import gmap strings sets pretty sorting.
From Coq Require Import Ascii.
From SK Require Import lib.Tok model.C15_Model proof.C15_Proof model.C16_Model proof.C16_Defs proof.C16_Chars.
Local Open Scope string_scope.
Local Open Scope list_scope.

(** * cutting a line: at its first bar, at the arrow *)
Lemma split_first_app P x a y : Forall (λ c, P c = false) x → P a = true → split_first P (x ++ a :: y) = (x, y).
Proof. induction 1 as [|c x Hc _ IH]; intros Ha; simpl; [by rewrite Ha|]. by rewrite Hc, IH. Qed.

Lemma split_arrow_cons a b t :
  split_arrow (a :: b :: t) = if is_char ">" a && is_char ">" b then Some ([], t)
                              else (λ p : chars * chars, (a :: p.1, p.2)) <$> split_arrow (b :: t).
Proof. reflexivity. Qed.
Lemma split_arrow_app x y : Forall (λ c, is_char ">" c = false) x →
  split_arrow (x ++ ">"%char :: ">"%char :: y) = Some (x, y).
Proof.
  induction 1 as [|c x Hc Hx IH]; [done|].
  change ((c :: x) ++ ">"%char :: ">"%char :: y) with (c :: (x ++ ">"%char :: ">"%char :: y)).
  destruct (x ++ ">"%char :: ">"%char :: y) as [|b t] eqn:E; [by destruct x|].
  rewrite split_arrow_cons, Hc. cbn [andb]. rewrite IH. done.
Qed.

Lemma edge_clean_app x m y : edge_clean x → edge_clean y → edge_clean (x ++ m ++ y).
Proof.
  intros [(a & t & -> & Ha) _] [_ (t' & b & -> & Hb)]. split.
  - by exists a, (t ++ m ++ t' ++ [b]).
  - exists ((a :: t) ++ m ++ t'), b. split; [|done]. by rewrite <-!(assoc_L (++)).
Qed.

Lemma rule_search_hit l g : rule_at l = Some g → rule_search l = Some g.
Proof.
  intros Hg. destruct l as [|a l]; [done|].
  change (rule_search (a :: l)) with (match rule_at (a :: l) with Some g => Some g | None => rule_search l end).
  by rewrite Hg.
Qed.

(** * one printed line *)
Definition arrow_sep : chars := to_chars " >> ".
Definition id_tail (ii : bool) (e : string) : chars := if ii then to_chars " id=" ++ to_chars e else [].
Definition line_chars (ii : bool) (e : string) (rx : rxn) : chars :=
  side_chars (r_lhs rx) ++ arrow_sep ++ side_chars (r_rhs rx) ++ to_chars " | " ++ to_chars "rule=" ++ to_chars (r_rule rx)
  ++ id_tail ii e.
(** the text before the bar (less one blank) and after it *)
Definition plain_chars (rx : rxn) : chars := side_chars (r_lhs rx) ++ arrow_sep ++ side_chars (r_rhs rx).
Definition meta_chars (ii : bool) (e : string) (rx : rxn) : chars :=
  [" "%char] ++ to_chars "rule=" ++ to_chars (r_rule rx) ++ id_tail ii e.
Lemma line_chars_split ii e rx : line_chars ii e rx = (plain_chars rx ++ [" "%char]) ++ "|"%char :: meta_chars ii e rx.
Proof. unfold line_chars, plain_chars, meta_chars. by rewrite <-!(assoc_L (++)). Qed.

Lemma plain_chars_bar_free rx : side_labels_ok (r_lhs rx) = true → side_labels_ok (r_rhs rx) = true →
  Forall (λ a, is_char "|" a = false) (plain_chars rx).
Proof.
  intros Hl Hr. unfold plain_chars. rewrite !Forall_app. split_and!.
  - eapply Forall_impl; [exact (side_chars_bar_gt_free _ Hl)|]. by intros a [? _].
  - by repeat constructor.
  - eapply Forall_impl; [exact (side_chars_bar_gt_free _ Hr)|]. by intros a [? _].
Qed.
Lemma line_chars_bar ii e rx : side_labels_ok (r_lhs rx) = true → side_labels_ok (r_rhs rx) = true →
  bool_decide ("|"%char ∈ line_chars ii e rx) = true ∧
  split_first (is_char "|") (line_chars ii e rx) = (plain_chars rx ++ [" "%char], meta_chars ii e rx).
Proof.
  intros Hl Hr. rewrite line_chars_split. split.
  - apply bool_decide_eq_true_2, elem_of_app. right. left.
  - apply split_first_app; [|done]. apply Forall_app. split; [by apply plain_chars_bar_free|by repeat constructor].
Qed.

Lemma fmt_line_chars ii e rx : r_rule rx ≠ "" → to_chars (fmt_line true ii e rx) = line_chars ii e rx.
Proof.
  intros Hr. unfold fmt_line, line_chars, id_tail, side_chars, arrow_sep.
  rewrite bool_decide_eq_false_2 by done. simpl negb. cbn [andb]. cbv iota.
  destruct ii; cbn [app]; rewrite !to_chars_app, to_of_chars; cbn [fmap list_fmap join]; rewrite !to_chars_app;
    rewrite <-?(assoc_L (++)); try done.
  by rewrite app_nil_r.
Qed.

Definition rxn_ok (rx : rxn) : Prop :=
  valid_rule (r_rule rx) = true ∧ side_labels_ok (r_lhs rx) = true ∧ side_labels_ok (r_rhs rx) = true ∧
  rxn_empty rx = false.

Lemma valid_rule_chars r : valid_rule r = true →
  ∃ t b, to_chars r = t ++ [b] ∧ Forall (λ a, negb (py_space a) = true) (t ++ [b]) ∧ r ≠ "".
Proof.
  unfold valid_rule. intros Hall.
  assert (to_chars r ≠ []) as Hne by (by destruct (to_chars r)).
  assert (Forall (λ a, negb (py_space a) = true) (to_chars r)) as HF.
  { apply Forall_forall. intros c Hc. destruct (to_chars r); [done|].
    rewrite forallb_forall in Hall. apply elem_of_list_In, Hall in Hc. by apply andb_true_iff in Hc as [_ ?]. }
  destruct (exists_last Hne) as (t & b & E). exists t, b. rewrite <-E. split_and!; [done|done|].
  intros ->. done.
Qed.

Lemma rule_at_printed r z : valid_rule r = true → z = [] ∨ (∃ z', z = " "%char :: z') →
  rule_at (to_chars "rule=" ++ to_chars r ++ z) = Some (to_chars r).
Proof.
  intros (t & b & Hr & Hns & _)%valid_rule_chars Hz. rewrite Hr. simpl. rewrite <-(assoc_L (++)).
  assert (take_while (λ a, negb (py_space a)) (t ++ [b] ++ z) = t ++ [b]) as Htw.
  { rewrite (assoc_L (++)). destruct Hz as [->|[z' ->]]; [rewrite app_nil_r; by apply take_while_all|by apply take_while_app]. }
  assert (∃ a0 l0, t ++ [b] ++ z = a0 :: l0 ∧ py_space a0 = false) as (a0 & l0 & E0 & Ha0).
  { destruct t as [|a0 t]; simpl; eexists _, _; (split; [done|]); apply Forall_inv in Hns; by apply negb_true_iff. }
  rewrite E0. simpl. rewrite Ha0. rewrite <-E0, Htw. by destruct t.
Qed.

Lemma rule_search_meta ii e rx : valid_rule (r_rule rx) = true →
  rule_search (strip (meta_chars ii e rx)) = Some (to_chars (r_rule rx)).
Proof.
  intros Hv. destruct (valid_rule_chars _ Hv) as (t & b & Hr & Hns & _). apply rule_search_hit.
  assert (py_space b = false) as Hb.
  { apply Forall_app in Hns as [_ Hb]. apply Forall_inv in Hb. by apply negb_true_iff. }
  (* stripping removes the leading blank and nothing at the end: the text ends with the rule or with the id *)
  assert (∃ z, strip (meta_chars ii e rx) = to_chars "rule=" ++ to_chars (r_rule rx) ++ z ∧ (z = [] ∨ ∃ z', z = " "%char :: z'))
    as (z & -> & Hz); [|by apply rule_at_printed].
  unfold meta_chars, strip, lstrip. simpl drop_while. rewrite Hr.
  change ("r"%char :: "u"%char :: "l"%char :: "e"%char :: "="%char :: (t ++ [b]) ++ id_tail ii e)
    with (to_chars "rule=" ++ (t ++ [b]) ++ id_tail ii e).
  rewrite <-(assoc_L (++) t [b]). rewrite (assoc_L (++) (to_chars "rule=") t). simpl ([b] ++ _).
  rewrite rstrip_app_nonspace by done. destruct ii; unfold id_tail.
  - change (to_chars " id=" ++ to_chars e) with (to_chars " id" ++ "="%char :: to_chars e).
    rewrite rstrip_app_nonspace by done. eexists. split.
    + rewrite <-!(assoc_L (++)). simpl. reflexivity.
    + right. by eexists.
  - exists []. split; [|by left]. unfold rstrip. simpl. by rewrite <-!(assoc_L (++)).
Qed.

Lemma add_generated_ok s l r rule : rxn_empty (Rxn (norm_rule rule) l r) = false →
  ∃ s' e, add s l r rule None = (s', None, e) ∧ edges s !! e = None ∧
          edges s' = <[ e := Rxn (norm_rule rule) l r ]> (edges s) ∧ order s' = order s ++ [e].
Proof.
  intros Hem. unfold add. destruct (next_id s (norm_rule rule)) as [[c e]|] eqn:Hid; [|by apply next_id_total in Hid].
  rewrite Hem. eexists _, e. split; [done|]. split; [by eapply next_id_fresh|done].
Qed.

(** what add_rxn_from_str does once the suffix is cut off *)
Definition add_core (s : net) (core : chars) (rule_local : option string) : net * option cerr :=
  match split_arrow (strip core) with
  | None => (s, Some EValue)
  | Some (lft, rgt) =>
      match from_chars lft with
      | None => (s, Some EIndex)
      | Some l =>
          match from_chars rgt with
          | None => (s, Some EIndex)
          | Some r => let '(s', er, _) := add s l r (default "" rule_local) None in (s', of_err <$> er)
          end
      end
  end.

Lemma add_from_str_whole s reaction rule : add_from_str s reaction rule false = add_core s (to_chars reaction) rule.
Proof. reflexivity. Qed.
Lemma add_from_str_cut s reaction core meta : "|"%char ∈ to_chars reaction →
  split_first (is_char "|") (to_chars reaction) = (core, meta) →
  add_from_str s reaction None true = add_core s core (of_chars <$> rule_search (strip meta)).
Proof. intros Hbar Hcut. unfold add_from_str. cbn [andb]. by rewrite bool_decide_eq_true_2, Hcut by done. Qed.

Lemma add_core_plain s rx rl post :
  side_labels_ok (r_lhs rx) = true → side_labels_ok (r_rhs rx) = true → rxn_empty rx = false → spaces post →
  ∃ s' e', add_core s (plain_chars rx ++ post) rl = (s', None) ∧ edges s !! e' = None ∧
           edges s' = <[ e' := Rxn (norm_rule (default "" rl)) (r_lhs rx) (r_rhs rx) ]> (edges s) ∧ order s' = order s ++ [e'].
Proof.
  intros Hl Hr Hem Hpost.
  pose proof (side_chars_edge_clean _ Hl) as HLc. pose proof (side_chars_edge_clean _ Hr) as HRc.
  pose proof (side_chars_bar_gt_free _ Hl) as HLf.
  unfold add_core. replace (strip (plain_chars rx ++ post)) with (plain_chars rx).
  2:{ symmetry. apply (strip_pad [] _ post); [constructor|done|]. by apply edge_clean_app. }
  unfold plain_chars, arrow_sep.
  change (to_chars " >> ") with ([" "%char] ++ ">"%char :: ">"%char :: [" "%char]).
  replace (side_chars (r_lhs rx) ++ ([" "%char] ++ ">"%char :: ">"%char :: [" "%char]) ++ side_chars (r_rhs rx))
    with ((side_chars (r_lhs rx) ++ [" "%char]) ++ ">"%char :: ">"%char :: ([" "%char] ++ side_chars (r_rhs rx))).
  2:{ rewrite <-!(assoc_L (++)). done. }
  rewrite split_arrow_app.
  2:{ rewrite Forall_app. split; [|by repeat constructor]. eapply Forall_impl; [exact HLf|]. by intros a [_ ?]. }
  pose proof (from_chars_side _ [] [" "%char] Hl ltac:(constructor) ltac:(by repeat constructor)) as HL.
  rewrite app_nil_l in HL. rewrite HL.
  pose proof (from_chars_side _ [" "%char] [] Hr ltac:(by repeat constructor) ltac:(constructor)) as HR.
  rewrite app_nil_r in HR. rewrite HR.
  destruct (add_generated_ok s (r_lhs rx) (r_rhs rx) (default "" rl)) as (s' & e' & -> & Hfresh & Hedges & Hord).
  { by destruct rx. }
  by exists s', e'.
Qed.

Lemma add_from_str_line s ii e rx : rxn_ok rx →
  ∃ s' e', add_from_str s (of_chars (line_chars ii e rx)) None true = (s', None) ∧ edges s !! e' = None ∧
           edges s' = <[ e' := rx ]> (edges s) ∧ order s' = order s ++ [e'].
Proof.
  intros (Hrule & Hl & Hr & Hem). destruct (valid_rule_chars _ Hrule) as (_ & _ & _ & _ & Hrne).
  destruct (add_core_plain s rx (Some (r_rule rx)) [" "%char] Hl Hr Hem) as (s' & e' & Heq & Hfresh & Hedges & Hord);
    [by repeat constructor|].
  exists s', e'. split; [|split; [done|split; [|done]]].
  - destruct (line_chars_bar ii e rx Hl Hr) as [Hbar%bool_decide_eq_true Hcut].
    rewrite (add_from_str_cut s _ (plain_chars rx ++ [" "%char]) (meta_chars ii e rx)) by (by rewrite to_of_chars).
    rewrite rule_search_meta by done. cbn [fmap option_fmap option_map]. by rewrite of_to_chars.
  - rewrite Hedges. cbn. rewrite norm_rule_id by done. by destruct rx.
Qed.

(** a printed line carries its rule in the suffix: parse_rxns does not fall back to its default rule *)
Lemma suffix_rule_line ii e rx : rxn_ok rx → suffix_rule (of_chars (line_chars ii e rx)) = Some (to_chars (r_rule rx)).
Proof.
  intros (Hrule & Hl & Hr & Hem). unfold suffix_rule. rewrite to_of_chars. cbv zeta.
  destruct (line_chars_bar ii e rx Hl Hr) as [-> ->]. cbn [snd]. by apply rule_search_meta.
Qed.
Lemma rule_or_default_line ii e rx dr : rxn_ok rx → rule_or_default (of_chars (line_chars ii e rx)) dr = None.
Proof. intros Hok. unfold rule_or_default. by rewrite (suffix_rule_line ii e rx Hok). Qed.

(** * the whole network *)
(** plain strings are items without an explicit rule *)
Lemma parse_items_plain s lines dr ps pf :
  parse_items s ((λ l, (l, None)) <$> lines) dr ps pf = parse_rxns s lines dr ps pf.
Proof. unfold parse_items, parse_rxns. by rewrite foldl_fmap. Qed.

Lemma parse_items_fresh {A} (it : A → string * option string) (out : A → rxn) dr ps pf (l : list A) :
  Forall (λ x, ∀ s, ∃ s' e', parse_item s (it x).1 (it x).2 dr ps pf = (s', None) ∧ edges s !! e' = None ∧
                             edges s' = <[ e' := out x ]> (edges s)) l →
  ∀ s, ∃ s', parse_items s (it <$> l) dr ps pf = (s', None) ∧ rxns_of s' ≡ₚ (out <$> l) ++ rxns_of s.
Proof.
  induction 1 as [|x l Hx _ IH]; intros s; [by exists s|].
  unfold parse_items. cbn [fmap list_fmap foldl]. destruct (Hx s) as (s1 & e1 & -> & Hfresh & Hedges).
  destruct (IH s1) as (s' & Hparse & Hperm). exists s'. split; [exact Hparse|].
  rewrite Hperm. unfold rxns_of at 1. rewrite Hedges, map_to_list_insert by done. cbn.
  unfold rxns_of. by rewrite Permutation_middle.
Qed.
Lemma parse_items_fresh_empty {A} (it : A → string * option string) (out : A → rxn) dr ps pf (l : list A) :
  Forall (λ x, ∀ s, ∃ s' e', parse_item s (it x).1 (it x).2 dr ps pf = (s', None) ∧ edges s !! e' = None ∧
                             edges s' = <[ e' := out x ]> (edges s)) l →
  (parse_items empty_net (it <$> l) dr ps pf).2 = None ∧ rxns_of (parse_items empty_net (it <$> l) dr ps pf).1 ≡ₚ out <$> l.
Proof.
  intros Hl. destruct (parse_items_fresh it out dr ps pf l Hl empty_net) as (s' & -> & Hp). split; [done|].
  cbn. rewrite Hp. unfold rxns_of at 1. cbn. by rewrite map_to_list_empty, app_nil_r.
Qed.

Lemma parse_item_line s ii e rx dr pf : rxn_ok rx →
  ∃ s' e', parse_item s (of_chars (line_chars ii e rx)) None dr true pf = (s', None) ∧ edges s !! e' = None ∧
           edges s' = <[ e' := rx ]> (edges s).
Proof.
  intros Hok. unfold parse_item. rewrite (rule_or_default_line ii e rx dr Hok).
  destruct (add_from_str_line s ii e rx Hok) as (s' & e' & ? & ? & ? & _). eauto.
Qed.

Lemma edge_seq_perm H : wf_order H → edge_seq H ≡ₚ map_to_list (edges H).
Proof.
  intros [Hnd Hdom].
  assert (∀ e, e ∈ order H → is_Some (edges H !! e)) as Hall.
  { intros e He. apply elem_of_dom. rewrite <-Hdom. by apply elem_of_list_to_set. }
  apply NoDup_Permutation.
  - apply (NoDup_fmap_1 fst). by rewrite edge_seq_fst.
  - apply NoDup_map_to_list.
  - intros [e rx]. rewrite elem_of_edge_seq, elem_of_map_to_list. split; [by intros [_ ?]|].
    intros He. split; [|done].
    assert (e ∈ (list_to_set (order H) : gset string)) as Hin by (rewrite Hdom; by apply elem_of_dom).
    by apply elem_of_list_to_set in Hin.
Qed.

Lemma rxn_ok_rule rx : rxn_ok rx → r_rule rx ≠ "".
Proof. intros [Hv _]. by destruct (valid_rule_chars _ Hv) as (_ & _ & _ & _ & ?). Qed.

Lemma domain_items_ok H (l : list (string * rxn)) : wf_rxns H → strings_domain H = true → l ≡ₚ map_to_list (edges H) →
  Forall (λ p, rxn_ok p.2) l.
Proof.
  intros Hwf Hdom%bool_decide_eq_true Hperm. apply Forall_forall. intros [e rx] Hin. rewrite Hperm in Hin.
  apply elem_of_map_to_list in Hin. destruct (Hdom e rx Hin) as (? & ? & ?). by destruct (Hwf e rx Hin).
Qed.
Lemma printed_line_chars ii (l : list (string * rxn)) : Forall (λ p, rxn_ok p.2) l →
  (λ p : string * rxn, fmt_line true ii p.1 p.2) <$> l = (λ p, of_chars (line_chars ii p.1 p.2)) <$> l.
Proof.
  intros Hl. apply Forall_fmap_ext. eapply Forall_impl; [exact Hl|]. intros [e rx] Hr%rxn_ok_rule. simpl.
  by rewrite <-fmt_line_chars, of_to_chars.
Qed.

Lemma strings_roundtrip (H : net) (include_id sort prefer_suffix : bool) (default_rule : string) :
  wf16 H → strings_domain H = true →
  (rxns_to_hypergraph (hypergraph_to_rxn_strings H true include_id sort) default_rule true prefer_suffix).2 = None ∧
  rxns_of (rxns_to_hypergraph (hypergraph_to_rxn_strings H true include_id sort) default_rule true prefer_suffix).1
    ≡ₚ rxns_of H.
Proof.
  intros (Hwf & _ & Hord & _) Hdom. unfold rxns_to_hypergraph, hypergraph_to_rxn_strings.
  set (items := if sort then sort_by_key (map_to_list (edges H)) else edge_seq H).
  assert (items ≡ₚ map_to_list (edges H)) as Hperm.
  { unfold items. destruct sort; [apply merge_sort_Permutation|by apply edge_seq_perm]. }
  pose proof (domain_items_ok H items Hwf Hdom Hperm) as Hok. rewrite (printed_line_chars _ _ Hok).
  rewrite <-parse_items_plain, <-list_fmap_compose.
  destruct (parse_items_fresh_empty (λ p : string * rxn, (of_chars (line_chars include_id p.1 p.2), None)) snd
              default_rule true prefer_suffix items) as [He Hp].
  { eapply Forall_impl; [exact Hok|]. intros [e rx] Hrx s. by apply parse_item_line. }
  split; [exact He|]. rewrite Hp. unfold rxns_of. by rewrite Hperm.
Qed.

(** * non-vacuity *)
Definition ex_str_net : net :=
  mk_net ["K"] [(None, "r", [("A", 2%Z)], [("B", 1%Z); ("A", 1%Z)]); (None, "q", [("B", 1%Z)], [("CC(=O)O", 12%Z)]);
                (Some "x", "r", [], [("C_1", 1%Z)]); (None, "q", [("B", 1%Z)], [("CC(=O)O", 12%Z)])] [("A", "CCO")].
Definition ex_str_lines : list string := hypergraph_to_rxn_strings ex_str_net true true false.
Example ex_str_domain : bool_decide (wf16 ex_str_net) = true ∧ strings_domain ex_str_net = true ∧ length (rxns_of ex_str_net) = 4%nat.
Proof. by vm_compute. Qed.
Example ex_str_printed :
  ex_str_lines = ["2A >> A + B | rule=r id=r_1"; "B >> 12CC(=O)O | rule=q id=q_1"; sb [226; 136; 133]%N +:+ " >> C_1 | rule=r id=x";
                  "B >> 12CC(=O)O | rule=q id=q_2"].
Proof. by vm_compute. Qed.
Example ex_side_parse : bool_decide (from_str "12Cl2 + A + 3 B + 2*C_1 + 2Fe(OH)3" =
  Some {[ "Cl2" := 12%positive; "A" := 1%positive; "B" := 3%positive; "C_1" := 2%positive; "Fe(OH)3" := 2%positive ]}) = true.
Proof. by vm_compute. Qed.
(** SMILES-like and formula labels are in the domain; labels that do not start with a letter or contain + * | > or blanks are not *)
Example ex_label_domain :
  forallb valid_label ["CC(=O)O"; "C#C"; "Fe(OH)3"; "c1ccccc1"; "C[C@H](N)C(=O)O"; "H2O"; "k_1"; "A-B.C"] = true ∧
  forallb (λ s, negb (valid_label s)) ["_x"; "2A"; "[OH-]"; "Na+"; "A B"; "A*"; "x|y"; "a>>b"; ""] = true.
Proof. by vm_compute. Qed.
(** a SMILES-like label that does not start with a letter: coefficient 2 on "[OH-]" prints "2[OH-]", read back as ONE new species *)
Definition ex_str_bracket : net := mk_net [] [(None, "r", [("[OH-]", 2%Z)], [("O", 1%Z)])] [].
Definition ex_str_bracket_back : net := (rxns_to_hypergraph (hypergraph_to_rxn_strings ex_str_bracket true false true) "r" true false).1.
Example ex_bracket_label_outside :
  strings_domain ex_str_bracket = false ∧ bool_decide (species ex_str_bracket_back = {[ "2[OH-]"; "O" ]}) = true.
Proof. by vm_compute. Qed.
