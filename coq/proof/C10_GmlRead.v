(** C10 — proofs: the GML reader (GMLToNX._parse_element, _synchronize_nodes_and_edges, ITSGraph) seen
    through [label] / [adj]: what a list of entries parses to, for EVERY list of entries (last entry wins). *)
From Coq Require Import List NArith ZArith Bool Lia.
From SK Require Import lib.LGraph lib.StrJoin model.C10_Model proof.C10_Views proof.C10_Build proof.C10_Copy.
Import ListNotations.
Local Open Scope Z_scope.

Definition node_att (n : N) (lab : str) : natt :=
  let '(el, ch) := extract_element_and_charge lab in NA (Some el) None (Some 0) (Some ch) (Some (Z.of_N n)) None.
Definition edge_att (lab : str) : eatt := EA (Some (OS (label_order lab))) None.

Lemma parse_entry_node g id lab : parse_entry g (GNode id lab) = add_node g id (node_att id lab).
Proof. unfold parse_entry, node_att. destruct (extract_element_and_charge lab). reflexivity. Qed.
Lemma parse_entry_edge g s t lab : parse_entry g (GEdge s t lab) = add_edge g s t (edge_att lab).
Proof. reflexivity. Qed.

(** entries processed right to left = the reversed list processed by fold_left *)
Definition parse_r (rl : list gent) : gr := fold_right (fun e acc => parse_entry acc e) g_empty rl.
Lemma parse_fold ents : fold_left parse_entry ents g_empty = parse_r (rev ents).
Proof. unfold parse_r. rewrite fold_left_rev_right. reflexivity. Qed.

Fixpoint gn_find (n : N) (l : list gent) : option str :=
  match l with
  | [] => None
  | GNode id lab :: r => if N.eqb id n then Some lab else gn_find n r
  | _ :: r => gn_find n r
  end.
Fixpoint ge_find (u v : N) (l : list gent) : option str :=
  match l with
  | [] => None
  | GEdge s t lab :: r => if pair_eqb s t u v then Some lab else ge_find u v r
  | _ :: r => ge_find u v r
  end.
Definition endp (n : N) (l : list gent) : bool :=
  existsb (fun e => match e with GEdge s t _ => N.eqb s n || N.eqb t n | _ => false end) l.

Lemma na_update_node_att n lab old :
  a_ar old = None -> a_tgh old = None -> na_update (node_att n lab) old = node_att n lab.
Proof.
  unfold node_att. destruct (extract_element_and_charge lab). destruct old. simpl. intros -> ->. reflexivity.
Qed.
Lemma node_att_ar n lab : a_ar (node_att n lab) = None /\ a_tgh (node_att n lab) = None.
Proof. unfold node_att. destruct (extract_element_and_charge lab). auto. Qed.

Lemma parse_label rl : forall n,
  label (parse_r rl) n =
  match gn_find n rl with
  | Some lab => Some (node_att n lab)
  | None => if endp n rl then Some na_empty else None
  end.
Proof.
  induction rl as [|e rl IH]; intros n; [reflexivity|]. change (parse_r (e :: rl)) with (parse_entry (parse_r rl) e).
  destruct e as [id lab|s t lab].
  - rewrite parse_entry_node, label_add_node. simpl gn_find. simpl endp.
    destruct (N.eqb_spec n id) as [->|Hne].
    + rewrite N.eqb_refl. f_equal. rewrite IH.
      destruct (gn_find id rl) as [l0|]; [|destruct (endp id rl)]; try reflexivity;
        apply na_update_node_att; try reflexivity; apply node_att_ar.
    + destruct (N.eqb_spec id n); [congruence|]. apply IH.
  - rewrite parse_entry_edge, label_add_edge. simpl gn_find. simpl endp. rewrite IH.
    rewrite (N.eqb_sym n s), (N.eqb_sym n t).
    destruct (gn_find n rl); [destruct (_ || _); reflexivity|].
    destruct (N.eqb s n || N.eqb t n); simpl; [|reflexivity]. destruct (endp n rl); reflexivity.
Qed.

Lemma parse_adj rl : forall u v, adj (parse_r rl) u v = option_map edge_att (ge_find u v rl).
Proof.
  induction rl as [|e rl IH]; intros u v; [reflexivity|]. change (parse_r (e :: rl)) with (parse_entry (parse_r rl) e).
  destruct e as [id lab|s t lab].
  - rewrite parse_entry_node, adj_add_node. apply IH.
  - rewrite parse_entry_edge, adj_add_edge. simpl ge_find. destruct (pair_eqb s t u v); [|apply IH].
    rewrite IH. destruct (ge_find s t rl); reflexivity.
Qed.

Lemma parse_gwf rl : gwf (parse_r rl).
Proof.
  induction rl as [|e rl IH]; [apply gwf_empty|]. change (parse_r (e :: rl)) with (parse_entry (parse_r rl) e).
  destruct e; [rewrite parse_entry_node; apply gwf_add_node|rewrite parse_entry_edge; apply gwf_add_edge]; exact IH.
Qed.

Lemma parse_noedges rl : (forall e, In e rl -> match e with GNode _ _ => True | GEdge _ _ _ => False end) ->
  gedges (parse_r rl) = [].
Proof.
  induction rl as [|e rl IH]; intros H; [reflexivity|]. change (parse_r (e :: rl)) with (parse_entry (parse_r rl) e).
  destruct e as [id lab|s t lab]; [|exfalso; apply (H (GEdge s t lab)); left; reflexivity].
  rewrite parse_entry_node, gedges_add_node. apply IH. intros e He. apply H. right. exact He.
Qed.

(** lookups in appended / reversed entry lists *)
Lemma gn_find_app n l1 l2 : gn_find n (l1 ++ l2) = match gn_find n l1 with Some x => Some x | None => gn_find n l2 end.
Proof. induction l1 as [|[id lab|s t lab] r IH]; simpl; [reflexivity| |exact IH]. destruct (N.eqb id n); auto. Qed.
Lemma ge_find_app u v l1 l2 : ge_find u v (l1 ++ l2) = match ge_find u v l1 with Some x => Some x | None => ge_find u v l2 end.
Proof. induction l1 as [|[id lab|s t lab] r IH]; simpl; [reflexivity|exact IH|]. destruct (pair_eqb s t u v); auto. Qed.
Lemma endp_app n l1 l2 : endp n (l1 ++ l2) = endp n l1 || endp n l2.
Proof. apply existsb_app. Qed.

(** ** the three sections *)
Lemma gml_to_nx_three A B C :
  gml_to_nx [(SLeft, A); (SContext, B); (SRight, C)] =
  let l := parse_r (rev A) in let c := parse_r (rev B) in let rt := parse_r (rev C) in
  (sync_side c l, sync_side c rt,
   its_construct (sync_side c l) (sync_side c rt) (union_pairs (sync_side c l) (sync_side c rt))).
Proof. unfold gml_to_nx. simpl. rewrite !parse_fold. reflexivity. Qed.

(** ** _synchronize_nodes_and_edges when the context section has no edges (explicit_hydrogen=False) *)
Lemma sync_side_noedges (ctx side : gr) : gedges ctx = [] -> sync_side ctx side = fold_left (nstep snd) (gnodes ctx) side.
Proof. intros H. unfold sync_side. rewrite (edges_iter_nil ctx H). reflexivity. Qed.

Lemma sync_gwf (ctx side : gr) : gedges ctx = [] -> gwf side -> gwf (sync_side ctx side).
Proof. intros H W. rewrite sync_side_noedges by exact H. apply fold_nstep_gwf. exact W. Qed.

(** ** _synchronize_nodes_and_edges for any context: a context edge is added where the side has no bond *)
Section SyncEdges.
Let step (acc : gr) (e : N * N * eatt) : gr := let '(u, v, x) := e in if has_edge acc u v then acc else add_edge acc u v x.
Lemma sync_fold_adj es : forall (s : gr) p q,
  adj (fold_left step es s) p q = match adj s p q with Some y => Some y | None => find_edge p q es end.
Proof.
  induction es as [|[[u v] x] r IH]; intros s p q; [simpl; destruct (adj s p q); reflexivity|].
  cbn [fold_left]. rewrite IH. rewrite find_edge_cons. unfold step. unfold has_edge.
  destruct (adj s u v) as [y|] eqn:A.
  - destruct (adj s p q) as [z|] eqn:B; [reflexivity|].
    destruct (pair_eqb u v p q) eqn:P; [|reflexivity]. rewrite (adj_pair s _ _ _ _ P) in A. congruence.
  - rewrite adj_add_edge, A. destruct (pair_eqb u v p q) eqn:P.
    + rewrite <- (adj_pair s _ _ _ _ P), A. reflexivity.
    + reflexivity.
Qed.
Lemma sync_fold_label es : forall (s : gr) n,
  (forall u v x, In (u, v, x) es -> has_node s u = true /\ has_node s v = true) -> label (fold_left step es s) n = label s n.
Proof.
  induction es as [|[[u v] x] r IH]; intros s n H; [reflexivity|]. cbn [fold_left].
  destruct (H u v x (or_introl eq_refl)) as [Hu Hv].
  assert (forall m, label (step s (u, v, x)) m = label s m) as E.
  { intros m. unfold step. destruct (has_edge s u v); [reflexivity|]. rewrite label_add_edge.
    destruct (N.eqb_spec m u) as [->|]; simpl.
    - apply has_node_label in Hu. destruct Hu as [a ->]. reflexivity.
    - destruct (N.eqb_spec m v) as [->|]; [|reflexivity]. apply has_node_label in Hv. destruct Hv as [a ->]. reflexivity. }
  rewrite IH; [apply E|]. intros a b y Hin. destruct (H a b y (or_intror Hin)) as [Ha Hb].
  unfold has_node in *. rewrite !E. auto.
Qed.

Lemma sync_adj_gen (ctx side : gr) u v : gwf ctx ->
  adj (sync_side ctx side) u v = match adj side u v with Some y => Some y | None => adj ctx u v end.
Proof.
  intros W. unfold sync_side. cbv zeta. fold step. change (fun acc (p : N * natt) => add_node acc (fst p) (snd p)) with (nstep snd).
  rewrite sync_fold_adj. change (find_edge u v (edges_iter ctx)) with (adj (copy ctx) u v). rewrite adj_copy by exact W.
  unfold adj at 1 2. rewrite fold_nstep_gedges. reflexivity.
Qed.
Lemma sync_label_gen (ctx side : gr) n : gwf ctx ->
  label (sync_side ctx side) n =
  match label ctx n with
  | Some a => Some (match label side n with Some old => na_update a old | None => a end)
  | None => label side n
  end.
Proof.
  intros W. unfold sync_side. cbv zeta. fold step. change (fun acc (p : N * natt) => add_node acc (fst p) (snd p)) with (nstep snd).
  rewrite sync_fold_label.
  - rewrite fold_nstep_label by apply (gwf_nd _ W). reflexivity.
  - intros a b x Hin. destruct (edges_iter_ends ctx a b x W Hin) as [Ha Hb].
    unfold has_node. rewrite !fold_nstep_label by apply (gwf_nd _ W). fold (label ctx a). fold (label ctx b).
    apply has_node_label in Ha, Hb. destruct Ha as [y ->]. destruct Hb as [z ->]. auto.
Qed.
End SyncEdges.

Definition its_d (G H : gr) (u v : N) : option eatt :=
  Some (EA (Some (OP (scal_order G u v) (scal_order H u v))) (Some (scal_order G u v - scal_order H u v))).
Lemma scal_order_sym (G : gr) u v : scal_order G u v = scal_order G v u.
Proof. unfold scal_order. rewrite adj_sym. reflexivity. Qed.
Lemma its_d_sym G H u v : its_d G H u v = its_d G H v u.
Proof. unfold its_d. rewrite (scal_order_sym G u v), (scal_order_sym H u v). reflexivity. Qed.

Definition its_nodes (G H : gr) : list (N * natt) :=
  let gfirst := (List.length (gnodes H) <=? List.length (gnodes G))%nat in
  let base := if gfirst then G else H in
  let other := if gfirst then H else G in
  gnodes base ++ filter (fun p => negb (has_node base (fst p))) (gnodes other).
Definition its_g0 (G H : gr) : gr := LG (map (fun p => (fst p, its_node G H (fst p) (snd p))) (its_nodes G H)) [].

Lemma its_construct_fold G H eo : its_construct G H eo = fold_left (estep (its_d G H)) eo (its_g0 G H).
Proof.
  unfold its_construct, its_g0, its_nodes. cbv zeta. apply fold_left_ext_in. intros acc [u v] _. reflexivity.
Qed.

Lemma assoc_map_val {V W} (F : N -> V -> W) n (l : list (N * V)) :
  assoc n (map (fun p => (fst p, F (fst p) (snd p))) l) = option_map (F n) (assoc n l).
Proof.
  induction l as [|[k a] r IH]; [reflexivity|]. simpl. destruct (N.eqb_spec n k) as [->|]; [reflexivity|exact IH].
Qed.
Lemma assoc_filter_key {V} (q : N -> bool) n (l : list (N * V)) :
  assoc n (filter (fun p => q (fst p)) l) = if q n then assoc n l else None.
Proof.
  induction l as [|[k a] r IH]; [destruct (q n); reflexivity|]. simpl.
  destruct (q k) eqn:Q; simpl; destruct (N.eqb_spec n k) as [->|]; rewrite ?Q; try exact IH; try reflexivity.
  rewrite IH, Q. reflexivity.
Qed.

Lemma its_nodes_assoc G H n :
  assoc n (its_nodes G H) =
  let gfirst := (List.length (gnodes H) <=? List.length (gnodes G))%nat in
  let base := if gfirst then G else H in
  let other := if gfirst then H else G in
  match label base n with Some b => Some b | None => label other n end.
Proof.
  unfold its_nodes. cbv zeta. rewrite assoc_app.
  set (base := if (_ <=? _)%nat then G else H). set (other := if (_ <=? _)%nat then H else G).
  fold (label base n). destruct (label base n) eqn:E; [reflexivity|].
  rewrite (assoc_filter_key (fun k => negb (has_node base k))). unfold has_node. rewrite E. reflexivity.
Qed.

Lemma pmatch_union G H u v : pmatch u v (union_pairs G H) = is_some (adj G u v) || is_some (adj H u v).
Proof.
  unfold union_pairs, pmatch. rewrite existsb_app.
  assert (existsb (fun e : N * N => pair_eqb (fst e) (snd e) u v)
            (map (fun e : N * N * eatt => let '(u0, v0, _) := e in (u0, v0)) (gedges G)) = is_some (adj G u v)) as ->.
  { unfold adj. induction (gedges G) as [|[[a b] x] r IH]; [reflexivity|]. simpl map. rewrite find_edge_cons. simpl.
    destruct (pair_eqb a b u v); [reflexivity|exact IH]. }
  assert (existsb (fun e : N * N => pair_eqb (fst e) (snd e) u v)
            (flat_map (fun e : N * N * eatt => let '(u0, v0, _) := e in if has_edge G u0 v0 then [] else [(u0, v0)]) (gedges H))
          = is_some (adj H u v) && negb (is_some (adj G u v))) as ->.
  { unfold adj at 1. induction (gedges H) as [|[[a b] x] r IH]; [reflexivity|]. simpl flat_map. rewrite find_edge_cons.
    rewrite existsb_app, IH. destruct (pair_eqb a b u v) eqn:P.
    - unfold has_edge. rewrite (adj_pair G _ _ _ _ P). destruct (adj G u v); simpl; [rewrite ?andb_false_r|rewrite P]; reflexivity.
    - destruct (has_edge G a b); simpl; rewrite ?P; reflexivity. }
  destruct (is_some (adj G u v)), (is_some (adj H u v)); reflexivity.
Qed.

Lemma its_construct_adj G H u v :
  adj (its_construct G H (union_pairs G H)) u v =
  if is_some (adj G u v) || is_some (adj H u v) then its_d G H u v else None.
Proof.
  rewrite its_construct_fold. rewrite (fold_estep_adj (its_d G H) (its_d_sym G H)); [|left; reflexivity].
  rewrite pmatch_union. reflexivity.
Qed.

Lemma its_construct_label G H eo n b :
  assoc n (its_nodes G H) = Some b -> label (its_construct G H eo) n = Some (its_node G H n b).
Proof.
  intros E. rewrite its_construct_fold. apply fold_estep_label_some.
  unfold label, its_g0. simpl. rewrite (assoc_map_val (its_node G H)), E. reflexivity.
Qed.

Lemma its_construct_has_node G H n :
  has_node (its_construct G H (union_pairs G H)) n = true ->
  has_node G n = true \/ has_node H n = true \/ exists w, is_some (adj G n w) = true \/ is_some (adj H n w) = true.
Proof.
  rewrite its_construct_fold. intros Hn. apply fold_estep_has_node in Hn. destruct Hn as [Hn|(e & He & Hm)].
  - unfold has_node, label, its_g0 in Hn. simpl in Hn. rewrite (assoc_map_val (its_node G H)), its_nodes_assoc in Hn.
    cbv zeta in Hn. unfold has_node. destruct (_ <=? _)%nat.
    + destruct (label G n); [left; reflexivity|]. destruct (label H n); [right; left; reflexivity|discriminate].
    + destruct (label H n); [right; left; reflexivity|]. destruct (label G n); [left; reflexivity|discriminate].
  - right. right. destruct e as [a b]. simpl in Hm.
    assert (pmatch a b (union_pairs G H) = true) as PM.
    { unfold pmatch. apply existsb_exists. exists (a, b). split; [exact He|apply pair_eqb_refl]. }
    rewrite pmatch_union in PM.
    destruct Hm as [->| ->]; [exists b|exists a; rewrite (adj_sym G), (adj_sym H)]; apply orb_true_iff in PM; exact PM.
Qed.
