(** C03 — non-vacuity: concrete inputs that satisfy the hypotheses of every theorem of props/C03.v, and on which the
    conclusions say something (a bond really changes, a charge really moves, the additive branch is really taken, no
    ITS is really produced). *)
From Coq Require Import List NArith ZArith Bool Permutation.
From SK Require Import lib.Tok lib.LGraph model.C03_Model proof.C03_Proof proof.C03_Glue proof.C03_Backward proof.C03_ExplicitH proof.C03_ExplicitShape proof.C03_ExplicitTotal proof.C03_Expand proof.C03_Default proof.C03_Iso proof.C03_Skeleton proof.C03_StripCounts proof.C03_Wiring proof.C03_WiringCount proof.C03_PairIds proof.C03_StripExact proof.C03_StripCor proof.C03_PairIdsComplete proof.C03_DefaultBalance proof.C03_DefaultEnd proof.C03_DefaultWiring.
Import ListNotations.
Local Open Scope Z_scope.

Definition C : N := 67%N.  Definition Nn : N := 78%N.  Definition Br : N := 17010%N.
Definition at_ (el : N) (hc ch : Z) : nattr := NA el false hc ch [].
Definition same (t : nattr) : inode := IN t t 0 None.

(** quaternisation-like rule  C-Br . N  >>  C-N+ . Br-   (rule atoms 10, 11, 12) *)
Definition ex_rc : its :=
  LG [(10%N, same (at_ C 0 0)); (11%N, IN (at_ Br 0 0) (at_ Br 0 (-1)) 0 None); (12%N, IN (at_ Nn 0 0) (at_ Nn 0 1) 0 None)]
     [(10%N, 11%N, (2, 0, 2)); (10%N, 12%N, (0, 2, -2))].
Definition ex_m : mapping := [(10%N, 1%N); (11%N, 2%N); (12%N, 3%N)].

(** substrate CH3Br . NH3 . CH4 (atom 4 is a bystander) *)
Definition ex_host : hostg :=
  LG [(1%N, at_ C 3 0); (2%N, at_ Br 0 0); (3%N, at_ Nn 3 0); (4%N, at_ C 4 0)] [(1%N, 2%N, 2)].
Definition ex_T : its := match glue ex_host ex_rc ex_m with Some t => t | None => LG [] [] end.

Example ex_hyps : wf_hostb ex_host = true /\ wf_rcb ex_rc = true /\ match_rcb ex_host ex_rc ex_m = true /\
                  glue ex_host ex_rc ex_m = Some ex_T /\ balancedb ex_rc = true.
Proof. vm_compute. repeat split; reflexivity. Qed.

(** the conclusions bite: the C-Br bond is broken, the C-N bond formed, N and Br change charge, atom 4 and nothing else changes *)
Example ex_T_value :
  adj ex_T 1%N 2%N = Some (2, 0, 2) /\ adj ex_T 3%N 1%N = Some (0, 2, -2) /\
  option_map (fun a => (a_ch (iG a), a_ch (iH a))) (label ex_T 3%N) = Some (0, 1) /\
  option_map (fun a => (a_ch (iG a), a_ch (iH a))) (label ex_T 2%N) = Some (0, -1) /\
  label ex_T 4%N = Some (same (at_ C 4 0)).
Proof. vm_compute. repeat split; reflexivity. Qed.

(** instances of the theorems on the example (hypotheses discharged by computation) *)
Example ex_left_is_host : gnodes (fst (its_decompose ex_T)) = gnodes (mol_of_host ex_host) /\
                          (forall a b, adj (fst (its_decompose ex_T)) a b = adj ex_host a b).
Proof. destruct ex_hyps as (H1 & H2 & H3 & H4 & _). exact (left_is_host_dec ex_host ex_rc ex_m ex_T H1 H2 H3 H4). Qed.
Example ex_left_tuples : node_ids ex_T = node_ids ex_host.
Proof. destruct ex_hyps as (H1 & H2 & H3 & H4 & _). exact (proj1 (left_is_host ex_host ex_rc ex_m ex_T H1 H2 H3 H4)). Qed.
Example ex_conserve : (forall e, elem_count e (fst (its_decompose ex_T)) = elem_count e (snd (its_decompose ex_T))) /\
                      total_charge (fst (its_decompose ex_T)) = total_charge (snd (its_decompose ex_T)).
Proof. destruct ex_hyps as (H1 & H2 & H3 & H4 & H5). exact (conserve_balanced ex_host ex_rc ex_m ex_T H1 H2 H3 H4 H5). Qed.
Example ex_conserve_nontrivial : elem_count EL_H (fst (its_decompose ex_T)) = 10 /\ elem_count C (fst (its_decompose ex_T)) = 2.
Proof. vm_compute. split; reflexivity. Qed.
Example ex_imbalance_exact : total_charge (snd (its_decompose ex_T)) - total_charge (fst (its_decompose ex_T)) = sumZ dQ ex_rc.
Proof. destruct ex_hyps as (H1 & H2 & H3 & H4 & _). exact (proj2 (proj2 (conserve_counts ex_host ex_rc ex_m ex_T H1 H2 H3 H4))). Qed.
Example ex_changes_exact : exists a b y, adj ex_T a b = Some y /\ eG y <> eH y.
Proof. exists 1%N, 2%N, (2, 0, 2). split; [vm_compute; reflexivity|vm_compute; discriminate]. Qed.
Example ex_unchanged_elsewhere : adj ex_T 1%N 4%N = option_map lift (adj ex_host 1%N 4%N).
Proof.
  destruct ex_hyps as (_ & H2 & H3 & H4 & _). apply (unchanged_elsewhere_explicit ex_host ex_rc ex_m ex_T H2 H3 H4).
  intros u v x hu hv I E1 E2. simpl in I. destruct I as [I|[I|[]]]; inversion I; subst; vm_compute in E1, E2; inversion E1; inversion E2; reflexivity.
Qed.
Example ex_changed_atoms : exists a, label ex_T 3%N = Some a /\ a_ch (iG a) = 0 /\ a_ch (iH a) = 1.
Proof.
  destruct ex_hyps as (_ & H2 & H3 & H4 & _).
  destruct (proj1 (glued_atoms ex_host ex_rc ex_m ex_T H2 H3 H4) 12%N (IN (at_ Nn 0 0) (at_ Nn 0 1) 0 None) 3%N) as (a & Ha & _ & _ & _ & G & H).
  - simpl. auto.
  - reflexivity.
  - exists a. auto.
Qed.
Example ex_std_consistent : forall a b y, adj ex_T a b = Some y -> eS y = eG y - eH y.
Proof.
  destruct ex_hyps as (_ & H2 & H3 & H4 & _). apply (std_consistent_glue ex_host ex_rc ex_m ex_T H2 H3 H4).
  intros u v x I. simpl in I. destruct I as [I|[I|[]]]; inversion I; subst; reflexivity.
Qed.

(** the additive branch: the same rule on Br-CH2-NH2 (the C-N bond to be formed already exists): 1.0 + 1.0 = 2.0 *)
Definition ex_host_add : hostg :=
  LG [(1%N, at_ C 2 0); (2%N, at_ Br 0 0); (3%N, at_ Nn 2 0)] [(1%N, 2%N, 2); (1%N, 3%N, 2)].
Definition ex_T_add : its := match glue ex_host_add ex_rc ex_m with Some t => t | None => LG [] [] end.
Example ex_additive_hyps : wf_rcb ex_rc = true /\ match_rcb ex_host_add ex_rc ex_m = true /\ glue ex_host_add ex_rc ex_m = Some ex_T_add.
Proof. vm_compute. repeat split; reflexivity. Qed.
Example ex_additive : adj ex_T_add 1%N 3%N = Some (2, 4, -2) /\ Z.odd (2 + 2) = false.
Proof.
  destruct ex_additive_hyps as (H2 & H3 & H4).
  apply (additive ex_host_add ex_rc ex_m ex_T_add H2 H3 H4 10%N 12%N (0, 2, -2) 1%N 3%N 2); try reflexivity. simpl. auto.
Qed.

(** ... and on an aromatic host bond (1.5): 1.5 + 1.0 is not a bond order, no ITS is produced *)
Definition ex_host_aro : hostg :=
  LG [(1%N, at_ C 0 0); (2%N, at_ Br 0 0); (3%N, at_ Nn 0 0)] [(1%N, 2%N, 2); (1%N, 3%N, 3)].
Example ex_additive_none : wf_rcb ex_rc = true /\ match_rcb ex_host_aro ex_rc ex_m = true /\ glue ex_host_aro ex_rc ex_m = None.
Proof. vm_compute. repeat split; reflexivity. Qed.
Example ex_additive_none_iff :
  exists u v x hu hv o, In (u, v, x) (gedges ex_rc) /\ eG x = 0 /\ mget ex_m u = Some hu /\ mget ex_m v = Some hv /\
                        adj ex_host_aro hu hv = Some o /\ Z.odd (o + eH x) = true.
Proof. destruct ex_additive_none as (H2 & H3 & H4). exact (proj1 (glue_none_iff ex_host_aro ex_rc ex_m H2 H3) H4). Qed.

(** backward: the inverted rule on the product  CH3-NH3+ . Br- *)
Definition ex_host_bwd : hostg :=
  LG [(1%N, at_ C 3 0); (2%N, at_ Br 0 (-1)); (3%N, at_ Nn 3 1)] [(1%N, 3%N, 2)].
Definition ex_T_bwd : its := match glue ex_host_bwd (invert_template ex_rc) ex_m with Some t => t | None => LG [] [] end.
Example ex_backward_hyps : wf_hostb ex_host_bwd = true /\ wf_rcb ex_rc = true /\
  match_rcb ex_host_bwd (invert_template ex_rc) ex_m = true /\ glue ex_host_bwd (invert_template ex_rc) ex_m = Some ex_T_bwd.
Proof. vm_compute. repeat split; reflexivity. Qed.
Example ex_backward : adj ex_T_bwd 1%N 2%N = Some (0, 2, -2) /\ adj ex_T_bwd 1%N 3%N = Some (2, 0, 2) /\
                      wf_rcb (invert_template ex_rc) = true.
Proof. vm_compute. repeat split; reflexivity. Qed.
Example ex_backward_thm : forall a b, adj (fst (its_decompose ex_T_bwd)) a b = adj ex_host_bwd a b.
Proof.
  destruct ex_backward_hyps as (H1 & H2 & H3 & H4).
  exact (proj2 (proj1 (proj2 (proj2 (backward ex_host_bwd ex_rc ex_m ex_T_bwd H1 H2 H3 H4))))).
Qed.
Example ex_synrule_implicit : nodupb (node_ids ex_rc) = true /\
  synrule ex_rc false = Some (ex_rc, fst (its_decompose ex_rc), snd (its_decompose ex_rc)).
Proof. split; [reflexivity|]. apply synrule_implicit. reflexivity. Qed.

(** explicit-hydrogen stage: proton transfer  O-H . N  >>  O- . H-N+  written with h_pairs (pair id 1 on both atoms);
    substrate CH3OH . NH3 *)
Definition Oo : N := 79%N.
Definition ex_rc_h : its :=
  LG [(10%N, IN (at_ Oo 1 0) (at_ Oo 0 (-1)) 1 (Some [1%N])); (12%N, IN (at_ Nn 0 0) (at_ Nn 1 1) 0 (Some [1%N]))] [].
Definition ex_m_h : mapping := [(10%N, 2%N); (12%N, 3%N)].
Definition ex_host_h : hostg := LG [(1%N, at_ C 3 0); (2%N, at_ Oo 1 0); (3%N, at_ Nn 3 0)] [(1%N, 2%N, 2)].
Definition ex_T_h : its := match glue ex_host_h ex_rc_h ex_m_h with Some t => t | None => LG [] [] end.
Definition ex_T_h' : its := match explicit_h ex_T_h with Some r => fst r | None => LG [] [] end.
Example ex_explicit_hyps :
  wf_hostb ex_host_h = true /\ wf_rcb ex_rc_h = true /\ match_rcb ex_host_h ex_rc_h ex_m_h = true /\
  glue ex_host_h ex_rc_h ex_m_h = Some ex_T_h /\ balancedb ex_rc_h = true /\
  explicit_h ex_T_h = Some (ex_T_h', [(2%N, 3%N)]).
Proof. vm_compute. repeat split; reflexivity. Qed.
(** one new H atom (id 4), bonded (1,0) to the donor O and (0,1) to the recipient N *)
Example ex_explicit_value :
  node_ids ex_T_h' = [1%N; 2%N; 3%N; 4%N] /\ adj ex_T_h' 2%N 4%N = Some (2, 0, 2) /\ adj ex_T_h' 4%N 3%N = Some (0, 2, -2) /\
  option_map (fun a => (a_hc (iG a), a_hc (iH a))) (label ex_T_h' 2%N) = Some (0, 0) /\
  option_map (fun a => (a_hc (iG a), a_hc (iH a))) (label ex_T_h' 3%N) = Some (3, 3).
Proof. vm_compute. repeat split; reflexivity. Qed.
Example ex_explicitH_partial : forall e, elem_count e (fst (its_decompose ex_T_h')) = elem_count e (fst (its_decompose ex_T_h)).
Proof.
  destruct ex_explicit_hyps as (_ & _ & _ & _ & _ & H6). intros e.
  refine (proj1 (proj1 (proj2 (explicit_h_accounting ex_T_h ex_T_h' _ _ H6)) e)).
  apply nodupb_NoDup. reflexivity.
Qed.
Example ex_explicitH_conserve : forall e, elem_count e (fst (its_decompose ex_T_h')) = elem_count e (snd (its_decompose ex_T_h')).
Proof.
  destruct ex_explicit_hyps as (H1 & H2 & H3 & H4 & H5 & H6).
  exact (proj1 (explicit_h_conserve ex_host_h ex_rc_h ex_m_h ex_T_h ex_T_h' _ H1 H2 H3 H4 H5 H6)).
Qed.

(** explicit path: CH3OH . NH3 expanded at the oxygen (new H atom 4), proton transfer written with an explicit H *)
Definition ex_hb : hostg := h_to_explicit ex_host_h [2%N].
Definition ex_rc_x : its :=
  LG [(10%N, IN (at_ Oo 0 0) (at_ Oo 0 (-1)) 0 None); (11%N, same (at_ EL_H 0 0)); (12%N, IN (at_ Nn 0 0) (at_ Nn 0 1) 0 None)]
     [(10%N, 11%N, (2, 0, 2)); (11%N, 12%N, (0, 2, -2))].
Definition ex_m_x : mapping := [(10%N, 2%N); (11%N, 4%N); (12%N, 3%N)].
Definition ex_T_x : its := match glue ex_hb ex_rc_x ex_m_x with Some t => t | None => LG [] [] end.
Example ex_expand_host : node_ids ex_hb = [1%N; 2%N; 3%N; 4%N] /\ adj ex_hb 2%N 4%N = Some 2 /\
                         option_map a_hc (label ex_hb 2%N) = Some 0 /\ NoDup (node_ids ex_host_h).
Proof. split; [reflexivity|]. split; [reflexivity|]. split; [reflexivity|]. apply nodupb_NoDup. reflexivity. Qed.
Example ex_explicit_path_hyps :
  wf_hostb ex_host_h = true /\ wf_hostb (h_to_explicit ex_host_h [2%N]) = true /\ wf_rcb ex_rc_x = true /\
  match_rcb (h_to_explicit ex_host_h [2%N]) ex_rc_x ex_m_x = true /\ glue (h_to_explicit ex_host_h [2%N]) ex_rc_x ex_m_x = Some ex_T_x /\
  explicit_h ex_T_x = Some (ex_T_x, []) /\ balancedb ex_rc_x = true /\ adj ex_T_x 4%N 3%N = Some (0, 2, -2).
Proof. vm_compute. repeat split; reflexivity. Qed.
Example ex_explicit_path : forall e, elem_count e (fst (its_decompose ex_T_x)) = elem_count e (mol_of_host ex_host_h).
Proof.
  destruct ex_explicit_path_hyps as (H1 & H2 & H3 & H4 & H5 & H6 & _).
  exact (proj1 (explicit_path ex_host_h [2%N] ex_rc_x ex_m_x ex_T_x ex_T_x [] H1 H2 H3 H4 H5 H6)).
Qed.

Example ex_explicitH_shape : gedges ex_T_h' = gedges ex_T_h ++ [(2%N, 4%N, (2, 0, 2)); (4%N, 3%N, (0, 2, -2))].
Proof.
  destruct ex_explicit_hyps as (_ & _ & _ & _ & _ & H6).
  refine (proj1 (explicit_h_shape ex_T_h ex_T_h' _ _ H6)). apply nodupb_NoDup. reflexivity.
Qed.

(** default mode on a template without explicit hydrogens (a keto-enol-like rule written with implicit counts) *)
Definition ex_tpl_d : its :=
  LG [(1%N, IN (at_ C 3 0) (at_ C 2 0) 0 None); (2%N, IN (at_ Oo 0 0) (at_ Oo 1 0) 0 None)] [(1%N, 2%N, (4, 2, 2))].
Example ex_synrule_default_noH :
  nodupb (node_ids ex_tpl_d) = true /\
  forallb (fun p => negb (N.eqb (a_el (iG (snd p))) EL_H) && negb (N.eqb (a_el (iH (snd p))) EL_H)) (gnodes ex_tpl_d) = true /\
  option_map (fun t => fst (fst t)) (synrule ex_tpl_d true) = Some (default_rc ex_tpl_d) /\
  sumZ dH ex_tpl_d = 0 /\ option_map (fun a => (a_hc (iG a), a_hc (iH a))) (label (default_rc ex_tpl_d) 1%N) = Some (0, 0).
Proof. vm_compute. repeat split; reflexivity. Qed.

(** _explicit_h raises: an atom that loses a hydrogen (pair id 1) with no partner to take it *)
Definition ex_T_crash : its := LG [(1%N, IN (at_ Oo 1 0) (at_ Oo 0 (-1)) 0 (Some [1%N]))] [].
Example ex_explicitH_crash_iff : explicit_h ex_T_crash = None /\ pairs_okb ex_T_crash = false /\ pairs_okb ex_T_h = true.
Proof. vm_compute. repeat split; reflexivity. Qed.

Example ex_changed_bonds_iso : changed_bonds ex_T = [((1%N, 2%N), -2); ((1%N, 3%N), 2)] /\
                               image_changed_bonds ex_m ex_rc = [((1%N, 2%N), -2); ((1%N, 3%N), 2)].
Proof. vm_compute. split; reflexivity. Qed.

(** default mode on a template with an explicit migrating hydrogen (O-H . N >> O . H-N): the H atom 2 and its two
    bonds are stripped, the hydrogen change is kept as counts and as h_pairs *)
Definition ex_tpl_x : its :=
  LG [(1%N, same (at_ Oo 0 0)); (2%N, same (at_ EL_H 0 0)); (3%N, same (at_ Nn 0 0))]
     [(1%N, 2%N, (2, 0, 2)); (2%N, 3%N, (0, 2, -2))].
Definition ex_rc_s : its := match synrule ex_tpl_x true with Some t => fst (fst t) | None => LG [] [] end.
Example ex_synrule_default_skeleton :
  nodupb (node_ids ex_tpl_x) = true /\ option_map (fun t => fst (fst t)) (synrule ex_tpl_x true) = Some ex_rc_s /\
  node_ids ex_rc_s = [1%N; 3%N] /\ gedges ex_rc_s = [] /\ is_H_i ex_tpl_x 2%N = true /\
  option_map (fun a => (a_hc (iG a), a_hc (iH a), i_hp a)) (label ex_rc_s 1%N) = Some (1, 0, Some [1%N]) /\
  option_map (fun a => (a_hc (iG a), a_hc (iH a), i_hp a)) (label ex_rc_s 3%N) = Some (0, 1, Some [1%N]).
Proof. vm_compute. repeat split; reflexivity. Qed.
Definition ex_m_s : mapping := [(1%N, 2%N); (3%N, 3%N)].
Definition ex_T_s : its := match glue ex_host_h ex_rc_s ex_m_s with Some t => t | None => LG [] [] end.
Example ex_default_changed_bonds :
  wf_hostb ex_host_h = true /\ wf_rcb ex_rc_s = true /\ match_rcb ex_host_h ex_rc_s ex_m_s = true /\
  glue ex_host_h ex_rc_s ex_m_s = Some ex_T_s /\ changed_bonds ex_T_s = [] /\
  option_map (fun a => (a_hc (iG a), a_hc (iH a))) (label ex_T_s 2%N) = Some (1, 0) /\
  option_map (fun a => (a_hc (iG a), a_hc (iH a))) (label ex_T_s 3%N) = Some (3, 4).
Proof. vm_compute. repeat split; reflexivity. Qed.

(** the counts on the same template: the left side keeps O (hcount 1 = its one bond to the stripped H 2) and N (0) *)
Definition ex_l_s : molg := match synrule ex_tpl_x true with Some t => snd (fst t) | None => LG [] [] end.
Example ex_synrule_default_counts :
  map (fun p => (fst p, m_hc (snd p))) (gnodes ex_l_s) = [(1%N, 1); (3%N, 0)] /\ gedges ex_l_s = [] /\
  sum_cnt (gedges (fst (its_decompose (standardize_hydrogen ex_tpl_x)))) [2%N] 1%N = 1 /\
  sum_cnt (gedges (fst (its_decompose (standardize_hydrogen ex_tpl_x)))) [2%N] 3%N = 0.
Proof. vm_compute. repeat split; reflexivity. Qed.

(** wiring: two independent hydrogen transfers C1 -> C3 (pair id 1) and O2 -> O4 (pair id 2), the recipients listed in
    the opposite order to the donors (the shape of the seeded change C03-r2-1): each hydrogen stays in its group *)
Definition ex_T_w : its :=
  LG [(1%N, IN (at_ C 1 0) (at_ C 0 0) 0 (Some [1%N])); (2%N, IN (at_ Oo 1 0) (at_ Oo 0 0) 0 (Some [2%N]));
      (4%N, IN (at_ Oo 0 0) (at_ Oo 1 0) 0 (Some [2%N])); (3%N, IN (at_ C 0 0) (at_ C 1 0) 0 (Some [1%N]))]
     [(1%N, 2%N, (2, 4, -2)); (3%N, 4%N, (4, 2, 2))].
Definition ex_T_w' : its := match explicit_h ex_T_w with Some r => fst r | None => LG [] [] end.
Example ex_explicitH_wiring :
  explicit_h ex_T_w = Some (ex_T_w', [(2%N, 4%N); (1%N, 3%N)]) /\ nodupb (node_ids ex_T_w) = true /\
  pairs_exactb ex_T_w = true /\ grouped ex_T_w 1%N = true /\ grouped ex_T_w 5%N = false /\
  occurrences 1%N (map fst [(2%N, 4%N); (1%N, 3%N)]) = 1 /\ dl_of ex_T_w 1%N = 1 /\ dl_of ex_T_w 4%N = -1.
Proof. vm_compute. repeat split; reflexivity. Qed.
Example ex_explicitH_wiring_thm : same_group ex_T_w 1%N 3%N /\ same_group ex_T_w 2%N 4%N.
Proof.
  destruct ex_explicitH_wiring as (H & Hn & _).
  destruct (explicit_h_wiring ex_T_w ex_T_w' _ (nodupb_NoDup _ Hn) H) as [_ W].
  split; [exact (proj1 (W (1%N, 3%N) (or_intror (or_introl eq_refl))))|exact (proj1 (W (2%N, 4%N) (or_introl eq_refl)))].
Qed.

(** pair ids: in the rule prepared from ex_tpl_x (O-H . N >> O . H-N) the atoms 1 and 3 share pair id 1 and both are bonded
    to the template's hydrogen 2; glued on CH3OH . NH3 the ids sit on the images 2 and 3 *)
Example ex_pair_ids :
  forallb (fun p => match i_hp (snd p) with None => true | Some _ => false end) (gnodes ex_tpl_x) = true /\
  option_map (fun a => hp_of a) (label ex_rc_s 1%N) = Some [1%N] /\ option_map (fun a => hp_of a) (label ex_rc_s 3%N) = Some [1%N] /\
  is_H_i ex_tpl_x 2%N = true /\ nbrs ex_tpl_x 2%N = [1%N; 3%N] /\
  option_map (fun a => hp_of a) (label ex_T_s 2%N) = Some [1%N] /\ option_map (fun a => hp_of a) (label ex_T_s 3%N) = Some [1%N] /\
  option_map (fun a => hp_of a) (label ex_T_s 1%N) = Some [].
Proof. vm_compute. repeat split; reflexivity. Qed.
Example ex_share_pair : share_pair ex_T_s 2%N 3%N.
Proof.
  exists 1%N, (match label ex_T_s 2%N with Some a => a | None => H_inode end), (match label ex_T_s 3%N with Some a => a | None => H_inode end).
  vm_compute. repeat split; auto.
Qed.

(** the exact characterisation on ex_tpl_x: hydrogen 2 has a heavy neighbour on both sides (O on the left, N on the right) *)
Example ex_synrule_default_exact :
  forallb (fun p => N.eqb (a_el (iH (snd p))) (a_el (iG (snd p)))) (gnodes ex_tpl_x) = true /\
  is_H_i ex_tpl_x 2%N = true /\ heavy_nbr (side0 iG eG ex_tpl_x) 2%N = true /\ heavy_nbr (side0 iH eH ex_tpl_x) 2%N = true /\
  heavy_nbr (side0 iG eG ex_tpl_x) 1%N = false /\ node_ids ex_rc_s = [1%N; 3%N].
Proof. vm_compute. repeat split; reflexivity. Qed.

Example ex_synrule_default_total : exists rc l r, synrule ex_tpl_x true = Some (rc, l, r).
Proof.
  apply synrule_default_total; [reflexivity|]. intros k a I. simpl in I. destruct I as [I|[I|[I|[]]]]; inversion I; subst; reflexivity.
Qed.
Example ex_synrule_default_pointwise :
  simple_edgesb (gedges ex_tpl_x) = true /\ sum_cnt (gedges (side0 iG eG ex_tpl_x)) [2%N] 1%N = 1 /\
  sum_cnt (gedges (side0 iH eH ex_tpl_x)) [2%N] 1%N = 0 /\ sum_cnt (gedges (side0 iH eH ex_tpl_x)) [2%N] 3%N = 1 /\
  option_map (fun a => (a_hc (iG a), a_hc (iH a))) (label ex_rc_s 1%N) = Some (1, 0) /\ has_XH ex_l_s = false /\ h_to_implicit ex_l_s = ex_l_s.
Proof. vm_compute. repeat split; reflexivity. Qed.

Example ex_pair_ids_complete : exists p, forall x, In x (nbrs ex_tpl_x 2%N) -> is_H_i ex_tpl_x x = false -> has_node ex_tpl_x x = true ->
                                         exists A, label ex_rc_s x = Some A /\ In p (hp_of A).
Proof.
  destruct ex_synrule_default_exact as (_ & H1 & H2 & H3 & _).
  apply (synrule_default_pairs_complete ex_tpl_x ex_rc_s (match synrule ex_tpl_x true with Some t => snd (fst t) | None => LG [] [] end)
           (match synrule ex_tpl_x true with Some t => snd t | None => LG [] [] end)); auto.
  intros k a I. simpl in I. destruct I as [I|[I|[I|[]]]]; inversion I; subst; reflexivity.
Qed.

Example ex_default_rule_dH : simple_edgesb (gedges ex_tpl_x) = true /\ sumZ dH ex_rc_s = 0 /\
  countZ (fun k => bonded eH ex_tpl_x k 2%N) [1%N; 3%N] = 1 /\ countZ (fun k => bonded eG ex_tpl_x k 2%N) [1%N; 3%N] = 1.
Proof. vm_compute. repeat split; reflexivity. Qed.

(** the template condition of the end-to-end theorems holds on ex_tpl_x (one removed hydrogen, one bond on each side) *)
Lemma isH_in (tpl : its) h : is_H_i tpl h = true -> In h (node_ids tpl).
Proof. intros H. apply has_node_in. unfold is_H_i in H. unfold has_node. destruct (label tpl h); [reflexivity|discriminate]. Qed.

Example ex_tpl_condition : tpl_condition ex_tpl_x.
Proof.
  intros R K NR NK HR HK.
  assert (ER : forall h, In h R <-> In h [2%N]).
  { intros h. rewrite HR. split.
    - intros (A & B & C). apply isH_in in A. simpl in A. destruct A as [<-|[<-|[<-|[]]]]; [vm_compute in B; discriminate|left; reflexivity|vm_compute in B; discriminate].
    - intros [<-|[]]. vm_compute. auto. }
  assert (EK : forall k, In k K <-> In k [1%N; 3%N]).
  { intros k. rewrite HK. split.
    - intros (A & B). simpl in A. destruct A as [<-|[<-|[<-|[]]]]; [left; reflexivity|vm_compute in B; discriminate|right; left; reflexivity].
    - intros [<-|[<-|[]]]; vm_compute; auto. }
  assert (PK : Permutation K [1%N; 3%N]).
  { apply NoDup_Permutation; [exact NK|repeat constructor; simpl; intuition discriminate|exact EK]. }
  split.
  - intros h Ih. apply ER in Ih. destruct Ih as [<-|[]]. rewrite !(countZ_perm _ _ _ PK). reflexivity.
  - rewrite (filter_ext_all (keepn R) (keepn [2%N])); [reflexivity|]. intros p. unfold keepn. f_equal.
    destruct (mem (fst p) R) eqn:E1, (mem (fst p) [2%N]) eqn:E2; try reflexivity.
    + apply mem_spec in E1. apply ER in E1. apply mem_spec in E1. congruence.
    + apply mem_spec in E2. apply ER in E2. apply mem_spec in E2. congruence.
Qed.

Example ex_default_end_to_end : explicit_h ex_T_s = Some (match explicit_h ex_T_s with Some p => fst p | None => LG [] [] end, [(2%N, 3%N)]) /\
  sumZ dQ ex_rc_s = 0.
Proof. vm_compute. split; reflexivity. Qed.

(** the migration of ex_T_s (O 2 -> N 3 on CH3OH . NH3) is the image of the template atoms 1 and 3, linked through hydrogen 2 *)
Example ex_default_migrations : tpl_group ex_tpl_x 1%N 3%N /\ mget ex_m_s 1%N = Some 2%N /\ mget ex_m_s 3%N = Some 3%N.
Proof.
  split; [|split; reflexivity]. eapply tg_step; [|constructor]. exists 2%N. vm_compute. auto.
Qed.
