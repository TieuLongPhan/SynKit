(** C11 (round 5) — the remaining views (model/C11_Views.v): the anchor option only removes the anchor; a connected graph
    has no anchor; AutoEst.components(nodes) is a sorted rearrangement of the components of the induced subgraph (which
    is well-formed again, so C11_components describes its members), raises exactly for an unknown node, and without
    [nodes] gives the components of the graph itself.  Stdlib lists. *)
From Coq Require Import List NArith Arith Bool Permutation.
From SK Require Import lib.LGraph lib.C01_GraphLemmas model.C11_Model model.C11_Views proof.C11_Aut proof.C11_WL
     proof.C11_Main.
Import ListNotations.

(** [sort_comps cs] is [sort_by key_leb cs] *)
Lemma sort_comps_perm cs : Permutation (sort_comps cs) cs.
Proof. exact (sort_by_perm _ key_leb cs). Qed.

Lemma sort_comps_in cs c : In c (sort_comps cs) <-> In c cs.
Proof. split; apply Permutation_in; [|apply Permutation_sym]; apply sort_comps_perm. Qed.

Lemma induced_all (g : graph) : wf g -> induced_sub g (node_ids g) = g.
Proof.
  intros (_ & W2 & _). destruct g as [ns es]. unfold induced_sub. simpl in *. f_equal.
  - apply filter_all. intros [u a] Hin. simpl. apply LGraph.mem_spec. unfold node_ids. simpl.
    change u with (fst (u, a)). apply in_map. exact Hin.
  - apply filter_all. intros [[a b] x] Hin. destruct (W2 a b x Hin) as (Ha & Hb & _).
    apply andb_true_iff. split; apply LGraph.mem_spec; assumption.
Qed.

Lemma keep_nodes_none (g : graph) ns :
  keep_nodes g (Some ns) = None <-> exists n, In n ns /\ ~ In n (node_ids g).
Proof.
  unfold keep_nodes. destruct (forallb (fun n => LGraph.mem n (node_ids g)) ns) eqn:E.
  - split; [discriminate|]. intros (n & Hn & Hnot). rewrite forallb_forall in E.
    specialize (E n Hn). apply LGraph.mem_spec in E. contradiction.
  - split; [|reflexivity]. intros _.
    assert (H : ~ forall n, In n ns -> LGraph.mem n (node_ids g) = true).
    { intros H. apply forallb_forall in H. congruence. }
    clear E. induction ns as [|n r IH].
    + exfalso. apply H. intros ? [].
    + destruct (LGraph.mem n (node_ids g)) eqn:M.
      * destruct IH as (m & Hm & Hnot).
        { intros H'. apply H. intros x [<-|Hx]; [exact M | exact (H' x Hx)]. }
        exists m. split; [right; exact Hm | exact Hnot].
      * exists n. split; [left; reflexivity|]. intros Hin. apply LGraph.mem_spec in Hin. congruence.
Qed.

Lemma connected_no_anchor fn fe (g : graph) : a_is_connected g = true -> a_anchor (analyze fn fe g) = None.
Proof.
  unfold a_is_connected, analyze. intros H.
  destruct (node_ids g) as [|n r] eqn:E; [reflexivity|].
  assert (Hc : (length (components g) <=? 1)%nat = true).
  { apply orb_true_iff in H. destruct H as [H|H].
    - destruct r as [|m r']; [|simpl in H; discriminate].
      unfold components. rewrite E. simpl. reflexivity.
    - apply Nat.eqb_eq in H. rewrite H. reflexivity. }
  rewrite Hc. destruct (analyze_component fn fe g). reflexivity.
Qed.

Theorem views_all (fn : nlab -> N) (fe : elab -> N) (g : graph) :
  analyze_flag true fn fe g = analyze fn fe g /\
  (let a := analyze_flag false fn fe g in
   a_count a = a_count (analyze fn fe g) /\ a_orbits a = a_orbits (analyze fn fe g) /\
   a_comps a = a_comps (analyze fn fe g) /\ a_anchor a = None) /\
  (a_is_connected g = true -> a_anchor (analyze fn fe g) = None) /\
  (forall ns, est_components g (Some ns) = None <-> exists n, In n ns /\ ~ In n (node_ids g)) /\
  (wf g -> est_components g None = Some (sort_comps (components g))) /\
  (wf g -> forall nodes out, est_components g nodes = Some out ->
     exists keep, keep_nodes g nodes = Some keep /\ wf (induced_sub g keep) /\
       length out = length (components (induced_sub g keep)) /\
       (forall c, In c out <-> In c (components (induced_sub g keep))) /\
       (forall u, In u (node_ids g) -> In u keep -> exists c, In c out /\ In u c)).
Proof.
  split; [reflexivity|]. split; [simpl; auto|]. split; [apply connected_no_anchor|]. split; [|split].
  - intros ns. unfold est_components. rewrite <- keep_nodes_none. destruct (keep_nodes g (Some ns)); split; congruence.
  - intros Hw. unfold est_components. simpl. rewrite (induced_all g Hw). reflexivity.
  - intros Hw nodes out H. unfold est_components in H. destruct (keep_nodes g nodes) as [keep|] eqn:K; [|discriminate].
    inversion H; subst out. exists keep. split; [reflexivity|].
    pose proof (wf_induced keep Hw) as Hwi. split; [exact Hwi|]. split; [exact (Permutation_length (sort_comps_perm _))|].
    split; [intros c; apply sort_comps_in|].
    intros u Hu Hk. destruct (components_cover (induced_sub g keep) u (induced_node g keep u Hu Hk)) as (c & Hc & Huc).
    exists c. split; [apply sort_comps_in; exact Hc | exact Huc].
Qed.

(** non-vacuity: C-C C (edge 1-2, isolated 3): not connected; components on {1,3}: two singletons; unknown node 9 raises *)
Definition ex_v : graph :=
  LG [(1%N, (0%N, 0%N, 0%N)); (2%N, (0%N, 0%N, 0%N)); (3%N, (0%N, 0%N, 0%N))] [(1%N, 2%N, (0%N, 0%N))].
Example ex_views :
  a_is_connected ex_v = false /\ a_anchor (analyze n_exact e_order ex_v) = Some [2; 1]%N /\
  a_anchor (analyze_flag false n_exact e_order ex_v) = None /\
  est_components ex_v None = Some [[3]; [2; 1]]%N /\
  est_components ex_v (Some [1; 3]%N) = Some [[1]; [3]]%N /\
  est_components ex_v (Some [1; 9]%N) = None /\
  est_orbit_components ex_v (wl n_exact e_order ex_v 10) None = Some [[0]; [1]]%N.
Proof. vm_compute. repeat split. Qed.
