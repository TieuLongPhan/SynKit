(** C08 — NautyCanonicalizer with any attribute selection: isomorphic graphs get the same graph_signature.
    If [h] is, on the covered attributes, [g] renumbered by an injective [pi], every ingredient of the selection's search is
    related (the selected codes and fields are functions of the covered values: C08_Equiv's [attr_rel], [adj_rel], [inc_rel]
    apply), the leaf enumerations correspond and the minimal selected label is the same; graph_signature hashes that label.
    (The converse - equal selected labels make the graphs isomorphic on the SELECTED attributes - is proved for the default
    selection only, C08_GraphSig; it is false for the empty node selection on the pair empty graph / single node.) *)
From Coq Require Import String List NArith ZArith Bool Arith Lia Permutation.
From SK Require Import lib.LGraph lib.IRSortKeys lib.IRCore lib.IRSearch lib.StrJoin.
From SK Require Import model.C08_Model model.C08_Sel proof.C08_Spec proof.C08_Sort proof.C08_Faithful proof.C08_Cov proof.C08_SigFun
                       proof.C08_Render proof.C08_IR proof.C08_Nauty proof.C08_Sound proof.C08_Equiv proof.C08_Invariant
                       proof.C08_GraphSig proof.C08_SelNauty.
From SK Require lib.IRInst.
Import ListNotations.

Notation ix p := (apply_map (mapping_of p)).

(* the selected codes and fields are functions of the covered values *)
Definition NF (c : list N * Z * bool * Z) (k : nsel) : str :=
  let '(e, c0, a, h0) := c in match k with SEl => e | SAr => pybool a | SCh => decZ c0 | SHc => decZ h0 end.
Definition NC1 (c : list N * Z * bool * Z) (k : nsel) : list Z :=
  let '(e, c0, a, h0) := c in match k with SEl => enc_str e | SAr => [b2z a] | SCh => [c0] | SHc => [h0] end.
Lemma nfield_cov a k : nfield a k = NF (ncov a) k.
Proof. destruct a, k; reflexivity. Qed.
Lemma ncode1_cov a k : ncode1 a k = NC1 (ncov a) k.
Proof. destruct a, k; reflexivity. Qed.
Definition EF (x : ecv) (k : esel) : str :=
  let '(o, t, s) := x in match k with SOrd => OS o t | SStd => match s with Some s => fl s | None => [] end end.
Definition EC1 (x : ecv) (k : esel) : list Z :=
  let '(o, t, s) := x in
  match k with
  | SOrd => match t with None => [1%Z; o] | Some b => [1%Z; Z.min o b; Z.max o b] end
  | SStd => [(match s with Some _ => 1 | None => 0 end)%Z; sd0 s]
  end.
Lemma efield_cov a k : efield a k = EF (ecov a) k.
Proof. destruct a as [o s t], k; reflexivity. Qed.
Lemma ecode1_cov a k : ecode1 a k = EC1 (ecov a) k.
Proof. destruct a as [o [s|] [t|]], k; reflexivity. Qed.
Lemma ecode_sel_cov ea a : ecode_sel ea a = flat_map (EC1 (ecov a)) ea.
Proof. unfold ecode_sel. apply flat_map_ext. intros k. apply ecode1_cov. Qed.

Section SelRel.
Variable na : list nsel.
Variable ea : list esel.
Variable pi : N -> N.
Hypothesis pi_inj : forall x y, pi x = pi y -> x = y.
Variables g h : graph.
Hypothesis Hg : wf g.
Hypothesis Hq : geq_cov (relabel pi g) h.

Lemma acode_sel_rel v : acode_sel na h (pi v) = acode_sel na g v.
Proof.
  unfold acode_sel. rewrite (flat_map_ext _ (NC1 (ncov (attr_of h (pi v))))) by (intros; apply ncode1_cov).
  rewrite (flat_map_ext (ncode1 (attr_of g v)) (NC1 (ncov (attr_of g v)))) by (intros; apply ncode1_cov).
  rewrite (attr_rel pi pi_inj g h Hg Hq). reflexivity.
Qed.
Lemma node_str_sel_rel v : node_str_sel na h (pi v) = node_str_sel na g v.
Proof.
  unfold node_str_sel. f_equal.
  rewrite (map_ext _ (NF (ncov (attr_of h (pi v))))) by (intros; apply nfield_cov).
  rewrite (map_ext (nfield (attr_of g v)) (NF (ncov (attr_of g v)))) by (intros; apply nfield_cov).
  rewrite (attr_rel pi pi_inj g h Hg Hq). reflexivity.
Qed.
Lemma edge_bit_sel_cov (k : graph) ab :
  edge_bit_sel ea k ab = match option_map ecov (adj k (fst ab) (snd ab)) with
                         | Some x => lit "1:"%string ++ join 58%N (map (EF x) ea)
                         | None => lit "0:"%string ++ join 58%N (map (fun _ : esel => @nil N) ea)
                         end.
Proof.
  unfold edge_bit_sel. destruct (adj k (fst ab) (snd ab)) as [x|]; [|reflexivity]. cbn [option_map].
  rewrite (map_ext (efield x) (EF (ecov x))) by (intros; apply efield_cov). reflexivity.
Qed.
Lemma edge_bit_sel_rel ab : edge_bit_sel ea h (pi (fst ab), pi (snd ab)) = edge_bit_sel ea g ab.
Proof. rewrite !edge_bit_sel_cov. cbn [fst snd]. rewrite (adj_rel pi pi_inj g h Hg Hq). reflexivity. Qed.

Lemma ecodes_sel_rel v : Permutation (map (fun p => ecode_sel ea (snd p)) (inc h (pi v))) (map (fun p => ecode_sel ea (snd p)) (inc g v)).
Proof.
  pose proof (Permutation_map (fun p : N * ecv => flat_map (EC1 (snd p)) ea) (inc_rel pi pi_inj g h Hq v)) as H.
  rewrite !map_map in H. cbn [snd ce] in H.
  rewrite (map_ext (fun p : N * eattr => ecode_sel ea (snd p)) (fun p => flat_map (EC1 (ecov (snd p))) ea)) by (intros; apply ecode_sel_cov).
  exact H.
Qed.

Theorem sigN_sel_rel P P' v : partR pi P P' -> sigN_sel na ea h P' (pi v) = sigN_sel na ea g P v.
Proof.
  intros HP. unfold sigN_sel. rewrite acode_sel_rel, (degree_rel pi pi_inj g h Hq). f_equal. f_equal. f_equal.
  - induction HP as [|c c' P P' Hc HP IH]; simpl; auto. f_equal; auto.
    rewrite (cnt_perm c' _ _ (nbrs_rel pi pi_inj g h Hq v)). apply IRInst.cnt_rel; auto.
  - f_equal. apply sort_by_perm_eq; [apply ecodes_sel_rel|]. intros x y _ _ E. exact E.
Qed.

Theorem init_sel_rel : partR pi (init_partition_sel na g) (init_partition_sel na h).
Proof.
  unfold init_partition_sel. pose proof (nnodes_rel pi g h Hq) as Hl.
  destruct (gnodes g) as [|p l] eqn:Eg, (gnodes h) as [|p' l'] eqn:Eh; try discriminate; [constructor|].
  apply init_cells_rel; [apply acode_sel_rel|apply (ids_rel pi g h Hq)].
Qed.

Theorem nlabel_sel_rel p : nlabel_sel na ea h (map pi p) = nlabel_sel na ea g p.
Proof.
  unfold nlabel_sel, node_seg_sel. rewrite (pairs_map pi), !map_map.
  rewrite (map_ext (fun x => node_str_sel na h (pi x)) (node_str_sel na g)) by apply node_str_sel_rel.
  rewrite (map_ext (fun x => edge_bit_sel ea h (pi (fst x), pi (snd x))) (edge_bit_sel ea g)) by apply edge_bit_sel_rel.
  reflexivity.
Qed.

Theorem leaves_sel_rel :
  Permutation (map (map pi) (leaves2 _ lexleb (sigN_sel na ea g) (rfuel g) (children g) (sfuel g) (init_partition_sel na g) []))
              (leaves2 _ lexleb (sigN_sel na ea h) (rfuel h) (children h) (sfuel h) (init_partition_sel na h) []).
Proof.
  destruct (fuel_rel pi g h Hq) as [-> ->].
  apply (leaves2_rel _ lexleb IRInst.lexleb_total IRInst.lexleb_trans IRInst.lexleb_antisym pi pi_inj (sigN_sel na ea g) (sigN_sel na ea h)
           sigN_sel_rel (children g) (children h) (children_perm g) (children_perm h) (rfuel g) (sfuel g)
           (init_partition_sel na g) (init_partition_sel na h) [] init_sel_rel).
Qed.
End SelRel.

Lemma nauty_label_sel_fold na ea (k : graph) :
  nauty_label_sel na ea k = fold_left (minl strleb) (map (nlabel_sel na ea k)
     (leaves2 _ lexleb (sigN_sel na ea k) (rfuel k) (children k) (sfuel k) (init_partition_sel na k) [])) None.
Proof.
  unfold nauty_label_sel, nauty_acc_sel. rewrite nsearch_sel_is_fold.
  exact (best_label_fold strleb (nlabel_sel na ea k) _ (None, [])).
Qed.

Theorem nauty_label_sel_rel na ea pi (pi_inj : forall x y : N, pi x = pi y -> x = y) g h : wf g -> geq_cov (relabel pi g) h ->
  nauty_label_sel na ea h = nauty_label_sel na ea g.
Proof.
  intros Hg Hq. rewrite !nauty_label_sel_fold.
  apply (min_label_rel pi); [apply (leaves_sel_rel na ea pi pi_inj g h Hg Hq)|apply (nlabel_sel_rel na ea pi pi_inj g h Hg Hq)].
Qed.

(* graph_signature hashes the minimal selected label *)
Theorem graph_sig_label_sel_min na ea g : wf g -> graph_sig_label_sel na ea g = nlabel_sel na ea g (nauty_perm_sel na ea g).
Proof.
  intros Hg. unfold graph_sig_label_sel, canon_nauty_sel.
  apply (label_in_canonical_order (nlabel_sel na ea) g (nauty_perm_sel na ea g)); [apply Hg|apply Hg|apply nauty_perm_sel_perm; apply Hg|].
  intros pi pi_inj. apply (nlabel_sel_rel na ea pi pi_inj g (relabel pi g) Hg (geq_cov_refl _)).
Qed.

Theorem graph_sig_sel_invariant na ea g h : wf g -> wf h -> iso_cov g h -> graph_sig_label_sel na ea g = graph_sig_label_sel na ea h.
Proof.
  intros Hg Hh (f & Hf & Hq0). rewrite !graph_sig_label_sel_min by auto.
  destruct (nauty_perm_sel_leaf na ea g (proj1 Hg)) as [_ Ep]. destruct (nauty_perm_sel_leaf na ea h (proj1 Hh)) as [_ Eq].
  destruct (global_renumbering geq_cov g h f (proj1 (proj2 Hg)) Hf Hq0) as (pi & pi_inj & _ & Hq).
  pose proof (nauty_label_sel_rel na ea pi pi_inj g h Hg Hq) as E. rewrite Ep, Eq in E. inversion E. reflexivity.
Qed.

Theorem graph_signature_sel_invariant (D : Type) (digest : str -> D) na ea g h : wf g -> wf h -> iso_cov g h ->
  digest (graph_sig_label_sel na ea g) = digest (graph_sig_label_sel na ea h).
Proof. intros. f_equal. apply graph_sig_sel_invariant; assumption. Qed.

(* non-vacuity: so_g / so_h (C08_Sound.v: renumbered, re-inserted, one edge flipped) under the empty and the element-only selection *)
Example sel_inv_ex : graph_sig_label_sel [] [] so_g = graph_sig_label_sel [] [] so_h
                     /\ graph_sig_label_sel [SEl] [SStd; SOrd] so_g = graph_sig_label_sel [SEl] [SStd; SOrd] so_h
                     /\ nauty_perm_sel [SEl] [SStd; SOrd] so_g <> nauty_perm_sel [SEl] [SStd; SOrd] so_h.
Proof.
  destruct inv_ex as (Wg & Wh & _ & Hi & _).
  split; [apply graph_sig_sel_invariant; assumption|]. split; [apply graph_sig_sel_invariant; assumption|vm_compute; discriminate].
Qed.

Print Assumptions graph_sig_sel_invariant.
Print Assumptions graph_sig_label_sel_min.
