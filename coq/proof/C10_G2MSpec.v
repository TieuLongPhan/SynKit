(** C10 — proofs: GraphToMol.graph_to_mol described by the two lookups, for EVERY molecule-shaped graph (any node ids, any
    insertion order): the atoms handed to RDKit are the node list in order, and the bond between the atoms at positions i, j is
    get_bond_type_from_order of the bond dictionary of the two nodes — whatever the order edges_iter walks the bonds in. *)
From Coq Require Import List NArith ZArith Bool Lia.
From SK Require Import lib.LGraph lib.StrJoin model.C10_Model proof.C10_Views proof.C10_Build proof.C10_Copy.
Import ListNotations.
Local Open Scope Z_scope.

Definition ordz (x : eatt) : Z := match e_ord x with Some (OS z) => z | _ => 2 end.
Definition scalar_ord (x : eatt) : Prop := match e_ord x with Some (OP _ _) => False | _ => True end.

Definition bonds_e (l : list (N * N * Z)) : list (N * N * eatt) :=
  map (fun b : N * N * Z => let '(bi, ei, o) := b in (bi, ei, EA (Some (OS o)) None)) l.
Lemma bond_find_e i j l : find_edge i j (bonds_e l) = option_map (fun o => EA (Some (OS o)) None) (bond_find i j l).
Proof.
  induction l as [|[[b e] o] r IH]; [reflexivity|]. simpl bonds_e. rewrite find_edge_cons. simpl bond_find.
  unfold pair_eqb. destruct (_ || _); [reflexivity|exact IH].
Qed.
Lemma bond_find_sym i j l : bond_find i j l = bond_find j i l.
Proof.
  induction l as [|[[b e] o] r IH]; [reflexivity|]. simpl. rewrite IH, orb_comm. reflexivity.
Qed.
Lemma bond_find_ends i j l o : bond_find i j l = Some o -> exists b e, In (b, e, o) l /\ ((b = i /\ e = j) \/ (b = j /\ e = i)).
Proof.
  induction l as [|[[b e] o'] r IH]; [discriminate|]. simpl.
  destruct ((N.eqb b i && N.eqb e j) || (N.eqb b j && N.eqb e i)) eqn:E.
  - intros [= ->]. exists b, e. split; [left; reflexivity|].
    apply orb_true_iff in E. rewrite !andb_true_iff, !N.eqb_eq in E. exact E.
  - intros H. destruct (IH H) as (b' & e' & Hin & Hor). exists b', e'. split; [right; exact Hin|exact Hor].
Qed.
Lemma bond_find_in_list i j l o : bond_find i j l = Some o -> exists b e, In (b, e, o) l.
Proof. intros H. destruct (bond_find_ends i j l o H) as (b & e & Hin & _). eauto. Qed.

Lemma index_of_in x l : forall i j, index_of x l i = Some j -> In x l.
Proof.
  induction l as [|y r IH]; intros i j; simpl; [discriminate|].
  destruct (N.eqb_spec y x); [left; assumption|]. intros H. right. apply (IH _ _ H).
Qed.
Lemma index_of_lt x l : forall k j, index_of x l k = Some j -> (j < k + N.of_nat (List.length l))%N.
Proof.
  induction l as [|w t IH]; intros k j; simpl; [discriminate|]. destruct (N.eqb w x); [intros [= <-]; lia|].
  intros H. apply IH in H. lia.
Qed.
Lemma index_of_some x l : forall i, In x l -> exists j, index_of x l i = Some j.
Proof.
  induction l as [|y r IH]; intros i Hin; [destruct Hin|]. simpl. destruct (N.eqb_spec y x); [eauto|].
  destruct Hin as [E|Hin]; [contradiction|]. apply IH, Hin.
Qed.
Lemma index_of_ge x l : forall k j, index_of x l k = Some j -> (k <= j)%N.
Proof.
  induction l as [|w t IH]; intros k j; simpl; [discriminate|]. destruct (N.eqb w x); [intros [= <-]; lia|].
  intros H. apply IH in H. lia.
Qed.
Lemma index_of_inj l : forall k x y j, index_of x l k = Some j -> index_of y l k = Some j -> x = y.
Proof.
  induction l as [|w t IH]; intros k x y j; simpl; [discriminate|].
  destruct (N.eqb_spec w x) as [Ex|Hx]; destruct (N.eqb_spec w y) as [Ey|Hy].
  - intros _ _. congruence.
  - intros [= <-] H. apply index_of_ge in H. lia.
  - intros H [= <-]. apply index_of_ge in H. lia.
  - apply IH.
Qed.

Section Spec.
Variable G : gr.
Hypothesis W : gwf G.
Hypothesis Hmol : forall u v x, adj G u v = Some x -> u <> v /\ scalar_ord x.
Let ids := node_ids G.

Lemma edge_entry u v x : In (u, v, x) (edges_iter G) ->
  adj G u v = Some x /\ exists i j, index_of u ids 0 = Some i /\ index_of v ids 0 = Some j /\ i <> j /\
    g2m_bond ids (u, v, x) = Some (i, j, bond_type (ordz x)).
Proof.
  intros Hin. pose proof (edges_iter_data G u v x W Hin) as A. split; [exact A|].
  destruct (Hmol u v x A) as [Huv Hs].
  destruct (edges_iter_ends G u v x W Hin) as [Hu Hv].
  apply has_node_in in Hu, Hv. destruct (index_of_some u ids 0%N Hu) as [i Ei]. destruct (index_of_some v ids 0%N Hv) as [j Ej].
  exists i, j. split; [exact Ei|split; [exact Ej|]].
  assert (i <> j) as Hij by (intros ->; apply Huv; apply (index_of_inj ids 0%N u v j Ei Ej)).
  split; [exact Hij|]. unfold g2m_bond, ordz. unfold scalar_ord in Hs. rewrite Ei, Ej.
  destruct (e_ord x) as [[z|a b]|]; try contradiction; destruct (N.eqb_spec i j); try contradiction; reflexivity.
Qed.

Theorem graph_to_mol_spec :
  exists bonds', graph_to_mol G = Some (map (fun p : N * natt => g2m_atom (snd p)) (gnodes G), bonds') /\
    (forall u v i j, index_of u ids 0 = Some i -> index_of v ids 0 = Some j ->
       bond_find i j bonds' = option_map (fun x => bond_type (ordz x)) (adj G u v)) /\
    (forall i j t, bond_find i j bonds' = Some t -> exists u v, index_of u ids 0 = Some i /\ index_of v ids 0 = Some j).
Proof.
  unfold graph_to_mol. fold ids.
  assert (forallb (fun b : option (N * N * Z) => match b with Some _ => true | None => false end)
            (map (g2m_bond ids) (edges_iter G)) = true) as ->.
  { apply forallb_forall. intros ob Hin. apply in_map_iff in Hin. destruct Hin as ([[u v] x] & <- & Hin).
    destruct (edge_entry u v x Hin) as (_ & i & j & _ & _ & _ & ->). reflexivity. }
  eexists. split; [reflexivity|].
  set (bonds' := flat_map _ _).
  assert (forall i j t, In (i, j, t) bonds' ->
            exists u v x, In (u, v, x) (edges_iter G) /\ index_of u ids 0 = Some i /\ index_of v ids 0 = Some j /\ t = bond_type (ordz x) /\
                          adj G u v = Some x) as Hin'.
  { intros i j t Hin. unfold bonds' in Hin. apply in_flat_map in Hin. destruct Hin as (ob & Hob & Ht).
    apply in_map_iff in Hob. destruct Hob as ([[u v] x] & <- & Hin). destruct (edge_entry u v x Hin) as (A & i' & j' & Ei & Ej & _ & E).
    rewrite E in Ht. destruct Ht as [Ht|[]]. inversion Ht; subst. exists u, v, x. auto. }
  split.
  - intros u v i j Ei Ej. destruct (bond_find i j bonds') as [t|] eqn:F.
    + destruct (bond_find_ends i j bonds' t F) as (b & e & Hin & Hbe). destruct (Hin' b e t Hin) as (u' & v' & x & _ & Eu & Ev & -> & A).
      destruct Hbe as [[-> ->]|[-> ->]].
      * rewrite (index_of_inj ids 0%N u u' i Ei Eu), (index_of_inj ids 0%N v v' j Ej Ev), A. reflexivity.
      * rewrite (index_of_inj ids 0%N u v' i Ei Ev), (index_of_inj ids 0%N v u' j Ej Eu), adj_sym, A. reflexivity.
    + destruct (adj G u v) as [x|] eqn:A; [|reflexivity]. exfalso.
      destruct (adj_in_edges_iter G u v x W A) as (u' & v' & Hin & P).
      destruct (edge_entry u' v' x Hin) as (A' & i' & j' & Ei' & Ej' & _ & E).
      assert (In (i', j', bond_type (ordz x)) bonds') as Hin2.
      { unfold bonds'. apply in_flat_map. exists (Some (i', j', bond_type (ordz x))). split; [|left; reflexivity].
        apply in_map_iff. exists (u', v', x). auto. }
      assert (find_edge i j (bonds_e bonds') <> None) as NE.
      { apply (in_find_some _ i' j' (EA (Some (OS (bond_type (ordz x)))) None)).
        - unfold bonds_e. apply in_map_iff. exists (i', j', bond_type (ordz x)). auto.
        - apply pair_eqb_spec in P. apply pair_eqb_spec. destruct P as [[-> ->]|[-> ->]]; [left|right]; split; congruence. }
      rewrite bond_find_e, F in NE. apply NE. reflexivity.
  - intros i j t F. destruct (bond_find_ends i j bonds' t F) as (b & e & Hin & Hbe). destruct (Hin' b e t Hin) as (u' & v' & x & _ & Eu & Ev & _).
    destruct Hbe as [[-> ->]|[-> ->]]; eauto.
Qed.

(** the molecule handed back when the atom at index k became node [T k] and the bonds of the graph are the bonds [bonds] of a
    record with [n] atoms: the same bond between every pair of atom indices *)
Corollary graph_to_mol_numbered (T : N -> N) (n : N) (bonds : list (N * N * Z)) :
  (forall k, (k < n)%N -> index_of (T k) ids 0 = Some k) -> N.of_nat (List.length ids) = n ->
  (forall i j, (i < n)%N -> (j < n)%N ->
     adj G (T i) (T j) = option_map (fun o => EA (Some (OS o)) None) (bond_find i j bonds)) ->
  (forall b e o, In (b, e, o) bonds -> (b < n)%N /\ (e < n)%N) ->
  exists bonds', graph_to_mol G = Some (map (fun p : N * natt => g2m_atom (snd p)) (gnodes G), bonds') /\
    forall i j, bond_find i j bonds' = option_map bond_type (bond_find i j bonds).
Proof.
  intros HT Hlen HA HB. destruct graph_to_mol_spec as (bonds' & E & S1 & S2). exists bonds'. split; [exact E|].
  assert (forall i j t, bond_find i j bonds' = Some t -> (i < n)%N /\ (j < n)%N) as HS.
  { intros i j t F. destruct (S2 i j t F) as (u & v & Iu & Iv). apply index_of_lt in Iu, Iv. lia. }
  assert (forall i j o, bond_find i j bonds = Some o -> (i < n)%N /\ (j < n)%N) as HB'.
  { intros i j o F. destruct (bond_find_ends i j bonds o F) as (b & e & Hin & Hbe).
    destruct (HB b e o Hin). destruct Hbe as [[-> ->]|[-> ->]]; auto. }
  intros i j.
  assert ((i < n)%N /\ (j < n)%N \/ bond_find i j bonds' = None /\ bond_find i j bonds = None) as [[Hi Hj]|[-> ->]]; [| |reflexivity].
  { destruct (bond_find i j bonds') as [t|] eqn:F'; [left; apply (HS i j t F')|].
    destruct (bond_find i j bonds) as [o|] eqn:F; [left; apply (HB' i j o F)|right; auto]. }
  rewrite (S1 (T i) (T j) i j (HT i Hi) (HT j Hj)), (HA i j Hi Hj). destruct (bond_find i j bonds); reflexivity.
Qed.
End Spec.
