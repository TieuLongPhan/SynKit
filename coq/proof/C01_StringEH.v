(** C01 — proofs about model/C01_String.v, part 4: h_to_explicit on an ITS (rsmi_to_its(explicit_hydrogen=True)) *)
From Coq Require Import List NArith ZArith Bool Lia Arith.
From SK Require Import lib.LGraph lib.C01_GraphLemmas model.C01_Model model.C02_Model model.C01_String proof.C01_OptsProof proof.C01_Proof.
Import ListNotations.
Local Open Scope Z_scope.

Definition st_nodes (st : hx_state) : list (N * inode) := fst (fst st).
Definition st_edges (st : hx_state) : list (N * N * iedge) := snd (fst st).
Definition st_max (st : hx_state) : N := snd st.

(** what happens to the attributes of an original atom: nothing if it has no hydrogen on both sides, else the common
    hydrogens leave hcount and both halves of typesGH *)
Definition hx_upd (a : inode) : inode := if hx_count a <=? 0 then a else hx_dec a (hx_count a).

Lemma assoc_map_upd h c (ns : list (N * inode)) n :
  assoc n (map (fun q => if N.eqb (fst q) h then (fst q, hx_dec (snd q) c) else q) ns) =
  option_map (fun a => if N.eqb n h then hx_dec a c else a) (assoc n ns).
Proof.
  rewrite (map_ext _ (fun p => (fst p, (fun key (a : inode) => if N.eqb key h then hx_dec a c else a) (fst p) (snd p)))).
  - apply (assoc_map_val (fun key (a : inode) => if N.eqb key h then hx_dec a c else a)).
  - intros [key a]. cbn [fst snd]. destruct (N.eqb key h); reflexivity.
Qed.

(** one step: nodes *)
Lemma hx_step_assoc st h n a : assoc n (st_nodes st) = Some a ->
  assoc n (st_nodes (hx_step st h)) = Some (if N.eqb n h then hx_upd a else a).
Proof.
  destruct st as [[ns es] mx]. unfold st_nodes. cbn [fst snd]. intros L. unfold hx_step.
  destruct (assoc h ns) as [b|] eqn:Lh.
  - destruct (N.eqb_spec n h) as [->|Hne].
    + rewrite L in Lh. inversion Lh; subst b. unfold hx_upd. destruct (hx_count a <=? 0); cbn [fst]; [exact L|].
      rewrite assoc_app, assoc_map_upd, L. cbn [option_map]. rewrite N.eqb_refl. reflexivity.
    + destruct (hx_count b <=? 0); cbn [fst]; [exact L|].
      rewrite assoc_app, assoc_map_upd, L. cbn [option_map]. destruct (N.eqb_spec n h); [congruence|reflexivity].
  - cbn [fst]. destruct (N.eqb_spec n h) as [->|Hne]; [congruence|exact L].
Qed.

Lemma hx_fold_assoc l : NoDup l -> forall st n a, assoc n (st_nodes st) = Some a ->
  assoc n (st_nodes (fold_left hx_step l st)) = Some (if mem n l then hx_upd a else a).
Proof.
  induction l as [|h r IH]; intros Hn st n a L; [exact L|]. inversion Hn as [|? ? Hh Hr]; subst.
  cbn [fold_left]. rewrite (IH Hr _ n _ (hx_step_assoc st h n a L)). cbn [mem existsb]. fold (mem n r).
  destruct (N.eqb_spec n h) as [->|Hne]; cbn [orb]; [|reflexivity].
  destruct (mem h r) eqn:M; [apply mem_spec in M; contradiction|reflexivity].
Qed.

(** one step: the shape of what is appended *)
Definition new_node_ok (mx0 : N) (p : N * inode) : Prop := (mx0 < fst p)%N /\ snd p = h_inode.
Definition new_edge_ok (mx0 : N) (e : N * N * iedge) : Prop :=
  let '(u, v, x) := e in (mx0 < v)%N /\ x = IE 2 2 0.

Lemma hx_step_shape mx0 st h : (mx0 <= st_max st)%N -> (h <= mx0)%N ->
  exists (f : N * inode -> N * inode) nn ne,
    (forall q, fst (f q) = fst q) /\ (forall q, (mx0 < fst q)%N -> f q = q) /\
    st_nodes (hx_step st h) = map f (st_nodes st) ++ nn /\ st_edges (hx_step st h) = st_edges st ++ ne /\
    Forall (new_node_ok mx0) nn /\ Forall (new_edge_ok mx0) ne /\ (mx0 <= st_max (hx_step st h))%N.
Proof.
  destruct st as [[ns es] mx]. unfold st_nodes, st_edges, st_max. cbn [fst snd]. intros Hm Hh. unfold hx_step.
  assert (exists (f : N * inode -> N * inode) nn ne,
            (forall q, fst (f q) = fst q) /\ (forall q, (mx0 < fst q)%N -> f q = q) /\
            ns = map f ns ++ nn /\ es = es ++ ne /\
            Forall (new_node_ok mx0) nn /\ Forall (new_edge_ok mx0) ne /\ (mx0 <= mx)%N) as Same.
  { exists (fun q => q), [], []. rewrite map_id, !app_nil_r. repeat split; auto. }
  destruct (assoc h ns) as [b|]; [|exact Same].
  destruct (hx_count b <=? 0); [exact Same|]. cbn [fst snd].
  set (new := map (fun i => (mx + N.of_nat i)%N) (seq 1 (Z.to_nat (hx_count b)))).
  assert (forall n', In n' new -> (mx0 < n')%N) as Hnew.
  { intros n' I'. apply in_map_iff in I'. destruct I' as (i & <- & Ii). apply in_seq in Ii. lia. }
  exists (fun q => if N.eqb (fst q) h then (fst q, hx_dec (snd q) (hx_count b)) else q),
         (map (fun n' => (n', h_inode)) new), (map (fun n' => (h, n', IE 2 2 0)) new).
  split; [|split; [|split; [reflexivity|split; [reflexivity|split; [|split]]]]].
  - intros q. destruct (N.eqb (fst q) h); reflexivity.
  - intros q Hq. destruct (N.eqb_spec (fst q) h); [lia|reflexivity].
  - apply Forall_forall. intros p Ip. apply in_map_iff in Ip. destruct Ip as (n' & <- & I'). split; [apply Hnew; exact I'|reflexivity].
  - apply Forall_forall. intros e Ie. apply in_map_iff in Ie. destruct Ie as (n' & <- & I'). split; [apply Hnew; exact I'|reflexivity].
  - lia.
Qed.

Lemma hx_fold_shape mx0 l : (forall h, In h l -> (h <= mx0)%N) -> forall st, (mx0 <= st_max st)%N ->
  exists (f : N * inode -> N * inode) nn ne,
    (forall q, fst (f q) = fst q) /\ (forall q, (mx0 < fst q)%N -> f q = q) /\
    st_nodes (fold_left hx_step l st) = map f (st_nodes st) ++ nn /\ st_edges (fold_left hx_step l st) = st_edges st ++ ne /\
    Forall (new_node_ok mx0) nn /\ Forall (new_edge_ok mx0) ne.
Proof.
  induction l as [|h r IH]; intros Hl st Hm.
  - exists (fun q => q), [], []. cbn [fold_left]. rewrite map_id, !app_nil_r. repeat split; auto.
  - cbn [fold_left].
    destruct (hx_step_shape mx0 st h Hm (Hl h (or_introl eq_refl))) as (f1 & n1 & e1 & K1 & I1 & N1 & E1 & F1 & G1 & M1).
    destruct (IH (fun x Hx => Hl x (or_intror Hx)) (hx_step st h) M1) as (f2 & n2 & e2 & K2 & I2 & N2 & E2 & F2 & G2).
    exists (fun q => f2 (f1 q)), (map f2 n1 ++ n2), (e1 ++ e2). split; [|split; [|split; [|split; [|split]]]].
    + intros q. rewrite K2, K1. reflexivity.
    + intros q Hq. rewrite (I1 q Hq). apply I2. exact Hq.
    + rewrite N2, N1, map_app, map_map, app_assoc. reflexivity.
    + rewrite E2, E1, app_assoc. reflexivity.
    + apply Forall_app. split; [|exact F2]. apply Forall_forall. intros p Ip. apply in_map_iff in Ip.
      destruct Ip as (q & <- & Iq). rewrite Forall_forall in F1. destruct (F1 q Iq) as [Hq1 Hq2].
      rewrite (I2 q Hq1). split; assumption.
    + apply Forall_app. split; assumption.
Qed.

Lemma fold_max_ge (l : list N) : forall m n, (In n l \/ n <= m)%N -> (n <= fold_left N.max l m)%N.
Proof.
  induction l as [|x l IH]; intros m n H; cbn [fold_left].
  - destruct H as [[]|H]; exact H.
  - apply IH. destruct H as [[->|H]|H]; [right; lia|left; exact H|right; lia].
Qed.

Theorem h_to_explicit_its_spec (I : its) : wf I ->
  let J := fst (h_to_explicit_its I) in
  let mx0 := fold_left N.max (node_ids I) 0%N in
  (* original atoms: the hydrogens common to both sides leave hcount and both halves of typesGH, nothing else changes *)
  (forall n a, label I n = Some a -> (n <= mx0)%N /\ label J n = Some (hx_upd a)) /\
  (* the atoms that are added are hydrogen atoms (H, no charge, atom_map 0, typesGH (H, H)) with fresh ids *)
  (exists nn, node_ids J = node_ids I ++ map fst nn /\ Forall (new_node_ok mx0) nn /\
              forall p, In p nn -> In p (gnodes J)) /\
  (* the bonds that are added are single bonds on both sides (order (1, 1), standard_order 0) to a fresh atom;
     every bond between original atoms is unchanged *)
  (exists ne, gedges J = gedges I ++ ne /\ Forall (new_edge_ok mx0) ne) /\
  (forall u v, (u <= mx0)%N -> (v <= mx0)%N -> adj J u v = adj I u v).
Proof.
  intros W J mx0. subst J. unfold h_to_explicit_its. fold mx0.
  set (st0 := (gnodes I, gedges I, mx0) : hx_state).
  assert (forall h, In h (node_ids I) -> (h <= mx0)%N) as Hle by (intros h Ih; apply fold_max_ge; left; exact Ih).
  destruct (hx_fold_shape mx0 (node_ids I) Hle st0 (N.le_refl _)) as (f & nn & ne & K & Ifix & Nn & Ne & Fn & Fe).
  pose proof (hx_fold_assoc (node_ids I) (proj1 W) st0) as HA.
  destruct (fold_left hx_step (node_ids I) st0) as [[ns es] mx] eqn:Efold.
  unfold st_nodes, st_edges in *. cbn [fst snd] in *. subst st0. cbn [fst snd] in *.
  split; [|split; [|split]].
  - intros n a L. split; [apply Hle; eapply label_some_node; eauto|].
    unfold label at 1. cbn [gnodes]. rewrite (HA n a L).
    assert (mem n (node_ids I) = true) as -> by (apply mem_spec; eapply label_some_node; eauto). reflexivity.
  - exists nn. split; [|split; [exact Fn|]].
    + unfold node_ids. cbn [gnodes]. rewrite Nn, map_app, map_map. f_equal. apply map_ext. intros q. apply K.
    + intros p Ip. cbn [gnodes]. rewrite Nn. apply in_app_iff. right. exact Ip.
  - exists ne. split; [exact Ne|exact Fe].
  - intros u v Hu Hv. unfold adj. cbn [gedges]. rewrite Ne, find_edge_app.
    destruct (find_edge u v (gedges I)) as [x|]; [reflexivity|].
    apply find_edge_none. intros x. rewrite Forall_forall in Fe. split; intros F; specialize (Fe _ F); cbn in Fe; lia.
Qed.

(** non-vacuity: CH3-OH -> CH3-OH2+ : the carbon's three hydrogens and the oxygen's common hydrogen become atoms, the
    hydrogen the oxygen gains stays implicit on the product side *)
Definition ex_eh : its :=
  LG [(1%N, IN 70%N 0 1 (Some (false, 3, [82%N])) (NA 70%N false 3 0 [82%N]) (NA 70%N false 3 0 [82%N]));
      (2%N, IN 82%N 0 2 (Some (false, 1, [70%N])) (NA 82%N false 1 0 [70%N]) (NA 82%N false 2 1 [70%N]))]
     [(1%N, 2%N, IE 2 2 0)].
Example C01_h_to_explicit_its_nonvacuous :
  wf ex_eh /\ node_ids (fst (h_to_explicit_its ex_eh)) = [1; 2; 3; 4; 5; 6]%N /\ snd (h_to_explicit_its ex_eh) = [3; 4; 5; 6]%N /\
  option_map (fun a => (a_hc (i_G a), a_hc (i_H a))) (label (fst (h_to_explicit_its ex_eh)) 2%N) = Some (0, 1) /\
  adj (fst (h_to_explicit_its ex_eh)) 2%N 6%N = Some (IE 2 2 0) /\
  option_map g_hc (label (snd (its_to_graphs (fst (h_to_explicit_its ex_eh)))) 2%N) = Some 1.
Proof.
  split; [|repeat split].
  apply wfb_spec. reflexivity.
Qed.

(** * how many hydrogens each atom gets *)
Definition step_edges (st : hx_state) (h : N) : list (N * N * iedge) :=
  match assoc h (st_nodes st) with
  | None => []
  | Some b =>
      if hx_count b <=? 0 then []
      else map (fun n' => (h, n', IE 2 2 0)) (map (fun i => (st_max st + N.of_nat i)%N) (seq 1 (Z.to_nat (hx_count b))))
  end.

Lemma hx_step_edges st h : st_edges (hx_step st h) = st_edges st ++ step_edges st h.
Proof.
  destruct st as [[ns es] mx]. unfold step_edges, st_edges, st_nodes, st_max, hx_step. cbn [fst snd].
  destruct (assoc h ns) as [b|]; [|cbn [fst snd]; rewrite app_nil_r; reflexivity].
  destruct (hx_count b <=? 0); cbn [fst snd]; [rewrite app_nil_r|]; reflexivity.
Qed.

Lemma filter_all_true {X} (p : X -> bool) (l : list X) : (forall x, In x l -> p x = true) -> filter p l = l.
Proof.
  induction l as [|a l IH]; intros H; [reflexivity|]. cbn [filter]. rewrite (H a (or_introl eq_refl)). f_equal.
  apply IH. intros x Hx. apply H. right. exact Hx.
Qed.

Definition from (n : N) (e : N * N * iedge) : bool := N.eqb (fst (fst e)) n.

Lemma step_edges_from st h n a : assoc n (st_nodes st) = Some a ->
  length (filter (from n) (step_edges st h)) = if N.eqb n h then Z.to_nat (Z.max 0 (hx_count a)) else 0%nat.
Proof.
  intros L. unfold step_edges. destruct (N.eqb_spec n h) as [->|Hne].
  - rewrite L. destruct (Z.leb_spec (hx_count a) 0) as [Hc|Hc].
    + rewrite Z.max_l by lia. reflexivity.
    + rewrite Z.max_r by lia. rewrite filter_all_true.
      * rewrite !map_length, seq_length. reflexivity.
      * intros e Ie. apply in_map_iff in Ie. destruct Ie as (n' & <- & _). unfold from. cbn [fst]. apply N.eqb_refl.
  - destruct (assoc h (st_nodes st)) as [b|]; [|reflexivity]. destruct (hx_count b <=? 0); [reflexivity|].
    induction (map (fun i => (st_max st + N.of_nat i)%N) (seq 1 (Z.to_nat (hx_count b)))) as [|x l IH]; [reflexivity|].
    cbn [map filter]. unfold from at 1. cbn [fst]. destruct (N.eqb_spec h n); [congruence|exact IH].
Qed.

Lemma hx_fold_count l : NoDup l -> forall st n a, assoc n (st_nodes st) = Some a ->
  exists ne, st_edges (fold_left hx_step l st) = st_edges st ++ ne /\
             length (filter (from n) ne) = if mem n l then Z.to_nat (Z.max 0 (hx_count a)) else 0%nat.
Proof.
  induction l as [|h r IH]; intros Hn st n a L.
  - exists []. cbn [fold_left]. rewrite app_nil_r. split; reflexivity.
  - inversion Hn as [|? ? Hh Hr]; subst. cbn [fold_left].
    destruct (IH Hr (hx_step st h) n _ (hx_step_assoc st h n a L)) as (ne & E & C).
    exists (step_edges st h ++ ne). split; [rewrite E, hx_step_edges, app_assoc; reflexivity|].
    rewrite filter_app, app_length, (step_edges_from st h n a L), C. cbn [mem existsb]. fold (mem n r).
    destruct (N.eqb_spec n h) as [->|Hne]; cbn [orb].
    + destruct (mem h r) eqn:M; [apply mem_spec in M; contradiction|]. lia.
    + destruct (mem n r); reflexivity.
Qed.

(** C01_h_to_explicit_count: every original atom gets exactly as many hydrogen atoms as leave its hcount and both
    halves of its typesGH, so its hydrogen total is unchanged on both sides *)
Theorem h_to_explicit_count (I : its) : wf I -> forall n a, label I n = Some a ->
  let J := fst (h_to_explicit_its I) in
  let c := Z.max 0 (hx_count a) in
  exists ne, gedges J = gedges I ++ ne /\
    length (filter (fun e : N * N * iedge => N.eqb (fst (fst e)) n) ne) = Z.to_nat c /\
    (forall b, label J n = Some b ->
       a_hc (i_G b) + c = a_hc (i_G a) /\ a_hc (i_H b) + c = a_hc (i_H a) /\ top_hc b + c = top_hc a).
Proof.
  intros W n a L J c. subst J.
  destruct (h_to_explicit_its_spec I W) as (HL & _).
  destruct (HL n a L) as [_ LJ].
  unfold h_to_explicit_its in *.
  set (st0 := (gnodes I, gedges I, fold_left N.max (node_ids I) 0%N) : hx_state) in *.
  destruct (hx_fold_count (node_ids I) (proj1 W) st0 n a L) as (ne & E & C).
  destruct (fold_left hx_step (node_ids I) st0) as [[ns es] mx] eqn:Efold.
  unfold st_edges in E. cbn [fst snd] in *. exists ne. split; [exact E|]. split.
  - assert (mem n (node_ids I) = true) as M by (apply mem_spec; eapply label_some_node; eauto).
    rewrite M in C. exact C.
  - intros b Lb. rewrite LJ in Lb. inversion Lb; subst b. clear Lb. subst c. unfold hx_upd.
    destruct (Z.leb_spec (hx_count a) 0) as [Hc|Hc].
    + rewrite Z.max_l by lia. repeat split; lia.
    + rewrite Z.max_r by lia. unfold hx_dec, top_hc. cbn [i_G i_H i_extra set_hc_n a_hc].
      repeat split; try lia. destruct (i_extra a) as [[[ar hc] nb]|] eqn:Ex; [lia|].
      exfalso. unfold hx_count, top_hc in Hc. rewrite Ex in Hc. lia.
Qed.

Example C01_h_to_explicit_count_nonvacuous :
  option_map hx_count (label ex_eh 1%N) = Some 3 /\ option_map hx_count (label ex_eh 2%N) = Some 1 /\
  length (filter (from 1%N) (skipn 1 (gedges (fst (h_to_explicit_its ex_eh))))) = 3%nat /\
  length (filter (from 2%N) (skipn 1 (gedges (fst (h_to_explicit_its ex_eh))))) = 1%nat.
Proof. repeat split. Qed.
