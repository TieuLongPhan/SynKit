(** C06 — the two places where the code, kept as it is, violates a clause of the property text read
    literally; both are documented behaviour of the library (see notes/C06.md, known_findings.d/C06.json). *)
From Coq Require Import List NArith Bool Arith Lia Relations.
From SK Require Import model.C06_Model lib.C06_Spec proof.C06_All proof.C06_Main.
Import ListNotations.
Local Open Scope N_scope.

Definition strict_witness_m : mapping := [(11, 3); (10, 2)].

Lemma strict_witness_mono : is_mono Mix COH strict_witness_m /\ separating Mix COH strict_witness_m.
Proof.
  (* the verified enumerator lists it, and what it lists is a monomorphism *)
  assert (Hmono : is_mono Mix COH strict_witness_m).
  { apply (proj1 (monos_on_contract Mix COH COH_wf _ _ (proj1 Mix_wf) (proj1 COH_wf))). vm_compute. left. reflexivity. }
  split; [exact Hmono|].
  (* the pattern is connected: every two pattern nodes are connected, whatever their images *)
  intros p h p' h' I1 I2 _.
  assert (Hp : p = 10 \/ p = 11) by (destruct I1 as [E|[E|[]]]; inversion E; auto).
  assert (Hp' : p' = 10 \/ p' = 11) by (destruct I2 as [E|[E|[]]]; inversion E; auto).
  assert (A : adjacent COH 10 11) by (vm_compute; discriminate).
  assert (B : adjacent COH 11 10) by (vm_compute; discriminate).
  destruct Hp as [->| ->], Hp' as [->| ->]; try apply rt_refl; apply rt_step; assumption.
Qed.

(** Clause "the component-aware strategy returns exactly those monomorphisms that send different pattern
    components into different host components": false under the DEFAULT strict_cc_count = True whenever
    the host has more components than a non-empty pattern.  Witness: C-OH in ethanol + acetic acid + water
    ([Mix] / [COH] of proof/C06_Main.v): two separating monomorphisms exist, the search returns []. *)
Theorem comp_strict_refuted :
  exists (H P : graph) (m : mapping),
    gwf H /\ gwf P /\ is_mono H P m /\ separating H P m /\
    (length (comps P) < length (comps H))%nat /\
    (* the call with every option at its default: strategy comp, strict_cc_count True, threshold 5000 *)
    find (monos_on H P) (Cfg 1 0 5000 true false) H P = [] /\
    (* while strict_cc_count = False returns it *)
    In m (find (monos_on H P) (Cfg 1 0 5000 false false) H P).
Proof.
  exists Mix, COH, strict_witness_m.
  split; [exact Mix_wf|]. split; [exact COH_wf|].
  split; [exact (proj1 strict_witness_mono)|split; [exact (proj2 strict_witness_mono)|]].
  split; [vm_compute; lia|split; [vm_compute; reflexivity|vm_compute; left; reflexivity]].
Qed.

(** Clause "result limits only truncate the list or, past the threshold, empty it": false for the
    component-aware (and the fallback) strategy when ONE pattern component has more than threshold embeddings
    although the combined result is within the threshold (the per-component enumeration guard).  Witness
    [Hx] / [Px]: the unlimited component-aware result has exactly 3 mappings, threshold 3 is therefore not
    exceeded, and yet [] is returned. *)
Theorem limits_comp_refuted :
  exists (H P : graph) (thr : N),
    let U := find (monos_on H P) (Cfg 1 0 5000 true false) H P in
    lenN U = 3 /\ thr = 3 /\
    limit 0 thr U = U /\
    find (monos_on H P) (Cfg 1 0 thr true false) H P = [] /\
    find (monos_on H P) (Cfg 2 0 thr true false) H P = [] /\
    find (monos_on H P) (Cfg 1 0 thr true false) H P <> limit 0 thr U.
Proof.
  exists Hx, Px, 3. cbv zeta. repeat apply conj; try (vm_compute; reflexivity). vm_compute. discriminate.
Qed.
