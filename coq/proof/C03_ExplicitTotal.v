(** C03 — when does _explicit_h raise (StopIteration inside the donor / recipient pairing)?  Exactly when, in some
    connected component of the h_pairs relation, the donors have more hydrogens to give than the recipients can take;
    in whatever order the atoms of a component are visited. *)
From Coq Require Import List NArith ZArith Bool Lia Permutation.
From SK Require Import lib.Tok lib.LGraph model.C03_Model model.C03_Order proof.C03_Proof proof.C03_Glue proof.C03_ExplicitH proof.C03_Wiring.
Import ListNotations.
Local Open Scope Z_scope.

Definition capsum (rs : list (N * Z)) : Z := fold_right (fun p acc => snd p + acc) 0 rs.
Definition caps_nonneg (rs : list (N * Z)) : Prop := Forall (fun p => 0 <= snd p) rs.
Definition need (dl : N -> Z) (ds : list N) : Z := fold_right (fun d acc => Z.of_nat (Z.to_nat (dl d)) + acc) 0 ds.

Lemma need_nonneg dl ds : 0 <= need dl ds.
Proof. induction ds; simpl; lia. Qed.

Lemma take_recip_none rs : caps_nonneg rs -> take_recip rs = None -> capsum rs = 0.
Proof.
  induction rs as [|[r cap] rest IH]; simpl; intros Hn H; [reflexivity|].
  inversion Hn as [|? ? H1 H2]; subst. simpl in H1.
  destruct (Z.ltb_spec 0 cap); [discriminate|].
  destruct (take_recip rest) as [[x rest']|] eqn:E; [discriminate|]. rewrite (IH H2 eq_refl). lia.
Qed.
Lemma take_recip_some rs : forall x rs', caps_nonneg rs -> take_recip rs = Some (x, rs') ->
  caps_nonneg rs' /\ capsum rs' = capsum rs - 1.
Proof.
  induction rs as [|[r cap] rest IH]; simpl; intros x rs' Hn H; [discriminate|].
  inversion Hn as [|? ? H1 H2]; subst. simpl in H1.
  destruct (Z.ltb_spec 0 cap).
  - inversion H; subst. split; [constructor; [simpl; lia|exact H2]|simpl; lia].
  - destruct (take_recip rest) as [[x' rest']|] eqn:E; [|discriminate]. inversion H; subst.
    destruct (IH x rest' H2 eq_refl) as [A B]. split; [constructor; [exact H1|exact A]|simpl; lia].
Qed.

Lemma donate_total d k : forall rs acc, caps_nonneg rs ->
  match donate d k rs acc with
  | Some (rs', _) => caps_nonneg rs' /\ capsum rs' = capsum rs - Z.of_nat k
  | None => capsum rs < Z.of_nat k
  end.
Proof.
  induction k as [|k IH]; intros rs acc Hn.
  - simpl. split; [exact Hn|lia].
  - cbn [donate]. destruct (take_recip rs) as [[r rs1]|] eqn:E.
    + destruct (take_recip_some rs r rs1 Hn E) as [A B]. specialize (IH rs1 (acc ++ [(d, r)]) A).
      destruct (donate d k rs1 (acc ++ [(d, r)])) as [[rs' acc']|]; [destruct IH as [C D]; split; [exact C|]|]; lia.
    + rewrite (take_recip_none rs Hn E). lia.
Qed.

Lemma donor_fold_total dl ds : forall rs acc, caps_nonneg rs ->
  match fold_left (donor_step dl) ds (Some (rs, acc)) with
  | Some (rs', _) => caps_nonneg rs' /\ capsum rs' = capsum rs - need dl ds
  | None => capsum rs < need dl ds
  end.
Proof.
  induction ds as [|d r IH]; intros rs acc Hn.
  - simpl. split; [exact Hn|lia].
  - cbn [fold_left need fold_right]. unfold donor_step at 2.
    pose proof (donate_total d (Z.to_nat (dl d)) rs acc Hn) as Hd.
    destruct (donate d (Z.to_nat (dl d)) rs acc) as [[rs1 acc1]|].
    + destruct Hd as [A B]. specialize (IH rs1 acc1 A). fold (need dl r).
      destruct (fold_left (donor_step dl) r (Some (rs1, acc1))) as [[rs' acc']|]; [destruct IH as [C D]; split; [exact C|]|]; lia.
    + rewrite donor_fold_none. fold (need dl r). pose proof (need_nonneg dl r). lia.
Qed.

(** the condition, as a boolean on one component *)
Definition comp_okb (T : its) (comp : list N) : bool :=
  need (dl_of T) (filter (fun n => 0 <? dl_of T n) comp)
  <=? capsum (map (fun n => (n, - dl_of T n)) (filter (fun n => dl_of T n <? 0) comp)).

Lemma need_sumF dl comp : need dl (filter (fun n => 0 <? dl n) comp) = sumF dl (filter (fun n => 0 <? dl n) comp).
Proof.
  induction comp as [|a r IH]; simpl; [reflexivity|]. destruct (Z.ltb_spec 0 (dl a)); simpl; [|exact IH].
  rewrite IH, Z2Nat.id by lia. reflexivity.
Qed.
Lemma capsum_sumF (f : N -> Z) l : capsum (map (fun n => (n, f n)) l) = sumF f l.
Proof. induction l as [|a r IH]; simpl; [reflexivity|]. rewrite IH. reflexivity. Qed.
Lemma comp_okb_balancedb T comp : comp_okb T comp = comp_balancedb T comp.
Proof. unfold comp_okb, comp_balancedb. rewrite need_sumF, (capsum_sumF (fun n => - dl_of T n)). reflexivity. Qed.

Lemma migrations_of_total T comp :
  match migrations_of T comp with Some _ => comp_okb T comp = true | None => comp_okb T comp = false end.
Proof.
  rewrite migrations_of_unfold. unfold comp_okb.
  set (rs := map (fun n => (n, - dl_of T n)) (filter (fun n => dl_of T n <? 0) comp)).
  assert (Hn : caps_nonneg rs).
  { unfold caps_nonneg, rs. apply Forall_forall. intros [n c] I. apply in_map_iff in I. destruct I as (n' & E & I). inversion E; subst.
    apply filter_In in I. destruct I as [_ I]. apply Z.ltb_lt in I. simpl. lia. }
  pose proof (donor_fold_total (dl_of T) (filter (fun n => 0 <? dl_of T n) comp) rs [] Hn) as H.
  destruct (fold_left _ _ _) as [[rs' acc]|].
  - destruct H as [A B]. apply Z.leb_le.
    assert (0 <= capsum rs') by (clear - A; induction A as [|[n c] l H1 H2 IH]; simpl in *; lia). lia.
  - apply Z.leb_gt. exact H.
Qed.

(** * the condition does not depend on the order in which a component is visited *)
Lemma filter_perm {A} (f : A -> bool) l1 l2 : Permutation l1 l2 -> Permutation (filter f l1) (filter f l2).
Proof.
  induction 1 as [|x l l' P IH|x y l|l l' l'' P1 IH1 P2 IH2]; simpl.
  - constructor.
  - destruct (f x); [constructor|]; exact IH.
  - destruct (f x), (f y); try apply Permutation_refl. apply perm_swap.
  - eapply perm_trans; eauto.
Qed.
Lemma sumF_filter_perm (G : N -> Z) f l1 l2 : Permutation l1 l2 -> sumF G (filter f l1) = sumF G (filter f l2).
Proof. intros P. apply sumF_perm, filter_perm, P. Qed.
Lemma comp_balancedb_perm T c1 c2 : Permutation c1 c2 -> comp_balancedb T c1 = comp_balancedb T c2.
Proof. intros P. unfold comp_balancedb. rewrite !(sumF_filter_perm _ _ c1 c2 P). reflexivity. Qed.
Lemma comp_exactb_perm T c1 c2 : Permutation c1 c2 -> comp_exactb T c1 = comp_exactb T c2.
Proof. intros P. unfold comp_exactb. rewrite !(sumF_filter_perm _ _ c1 c2 P). reflexivity. Qed.

Section AnyOrder.
  Variable ord : list N -> list N.
  Hypothesis ord_in : forall l x, In x (ord l) <-> In x l.
  Hypothesis ord_nodup : forall l, NoDup l -> NoDup (ord l).

  Lemma ord_perm_sort c : NoDup c -> Permutation (ord c) (sort_N c).
  Proof.
    intros Hc. apply NoDup_Permutation; [apply ord_nodup; exact Hc|apply nodup_sort_N; exact Hc|].
    intros x. rewrite ord_in, in_sort_N_iff. tauto.
  Qed.

  Lemma comp_foldo_total T cs : Forall (@NoDup N) cs -> forall acc,
    match fold_left (comp_step_ord ord T) cs (Some acc) with
    | Some _ => forallb (fun c => comp_balancedb T (sort_N c)) cs = true
    | None => forallb (fun c => comp_balancedb T (sort_N c)) cs = false
    end.
  Proof.
    induction cs as [|c r IH]; intros Hnd acc; [reflexivity|]. inversion Hnd as [|? ? N1 N2]; subst.
    cbn [fold_left forallb]. unfold comp_step_ord at 2. pose proof (migrations_of_total T (ord c)) as Hc.
    rewrite comp_okb_balancedb, (comp_balancedb_perm T _ _ (ord_perm_sort c N1)) in Hc.
    destruct (migrations_of T (ord c)) as [ms|].
    - rewrite Hc. exact (IH N2 (acc ++ ms)).
    - rewrite Hc, comp_foldo_none. reflexivity.
  Qed.

  Theorem explicit_h_ord_crash_iff T : explicit_h_ord ord T = None <-> pairs_okb T = false.
  Proof.
    unfold explicit_h_ord, pairs_okb, all_migrations_ord.
    pose proof (comp_foldo_total T (components (pair_to_nodes T)) (proj1 (components_good _ (pair_to_nodes_nodup T))) []) as H.
    destruct (fold_left (comp_step_ord ord T) (components (pair_to_nodes T)) (Some [])) as [ms|].
    - rewrite H. split; discriminate.
    - rewrite H. split; reflexivity.
  Qed.
End AnyOrder.

Theorem explicit_h_crash_iff T : explicit_h T = None <-> pairs_okb T = false.
Proof. rewrite <- explicit_h_ord_sort. exact (explicit_h_ord_crash_iff sort_N (fun l x => in_sort_N_iff x l) nodup_sort_N T). Qed.
