(** C16 — the species-graph round trip survives the deletion of every attribute except `via` and the
    per-reaction coefficient maps: node `label` (the node id is the label), `kind`, `mol`, the `rules` sets (rule names
    are not claimed by the species-graph clause) and the legacy per-arc values stoich_r / stoich_p.
    Without the per-reaction maps the clause fails as soon as two reactions share a species pair with different
    coefficients ([ex_sdrop_maps_needed]).  Model of the deletions: model/C16_Edit.v. *)
From stdpp Require Import gmap strings sets pretty sorting.
From SK Require Import lib.Tok model.C15_Model proof.C15_Proof model.C16_Model proof.C16_Defs proof.C16_Common proof.C16_Sg model.C16_Edit.
Local Open Scope string_scope.
Local Open Scope list_scope.

(** the import reads the same coefficients after the deletion: a per-reaction map that is deleted must be made up for by a
    legacy value that is kept and carries the coefficient of every reaction on the arc *)
Lemma sdrop_VAInv d done arcs : AInv done arcs →
  (sd_rmap d = true → sd_leg_r d = false ∧
     ∀ a t, arcs !! (t_u t, t_v t) = Some a → t ∈ done → sa_r a = Z.pos (t_c t)) →
  (sd_pmap d = true → sd_leg_p d = false ∧
     ∀ a t, arcs !! (t_u t, t_v t) = Some a → t ∈ done → sa_p a = Z.pos (t_d t)) →
  VAInv done (sdrop_arc d <$> arcs).
Proof.
  intros [Hvia Hmap Harc Hne] Hr Hp. split.
  - intros u v a e. rewrite lookup_fmap. destruct (arcs !! (u, v)) as [a0|] eqn:E; [|done]. cbn. intros [= <-].
    cbn. by apply Hvia.
  - intros a t. rewrite lookup_fmap. destruct (arcs !! (t_u t, t_v t)) as [a0|] eqn:E; [|done]. cbn. intros [= <-] Ht.
    destruct (Hmap a0 t E Ht) as [Hm1 Hm2]. unfold sdrop_arc. cbn. split.
    + destruct (sd_rmap d); [|by rewrite Hm1]. destruct (Hr eq_refl) as [-> HL]. rewrite lookup_empty. by apply HL.
    + destruct (sd_pmap d); [|by rewrite Hm2]. destruct (Hp eq_refl) as [-> HL]. rewrite lookup_empty. by apply HL.
  - intros t Ht. rewrite lookup_fmap. destruct (Harc t Ht) as [a ->]. by eexists.
  - intros uv a. rewrite lookup_fmap. destruct (arcs !! uv) as [a0|] eqn:E; [|done]. cbn. intros [= <-]. cbn. by eapply Hne.
Qed.

Lemma sdrop_NInv d nodes : NInv nodes → NInv (sdrop_node d <$> nodes).
Proof.
  intros HN x nd. rewrite lookup_fmap. destruct (nodes !! x) as [nd0|] eqn:E; [|done]. cbn. intros [= <-].
  unfold sdrop_node. cbn. destruct (sd_label d); [by left|]. by apply HN.
Qed.

Lemma species_graph_roundtrip_edited (pick : gset string → string) (default_rule : string) (include_mol mol_attr : bool)
    (d : sdrops) (H : net) :
  two_sided H → sd_rmap d = false → sd_pmap d = false →
  (species_graph_to_hypergraph pick default_rule mol_attr (sdrop_attrs d (hypergraph_to_species_graph include_mol H))).2 = None ∧
  stoich_of <$> edges (species_graph_to_hypergraph pick default_rule mol_attr
                         (sdrop_attrs d (hypergraph_to_species_graph include_mol H))).1
    = stoich_of <$> edges H.
Proof.
  intros H2 Hm Hm'. destruct (export_inv include_mol H) as [HA HN].
  apply species_graph_import_stoich; [done|apply sdrop_VAInv; [done|by rewrite Hm|by rewrite Hm']|by apply sdrop_NInv].
Qed.

(** non-vacuity: two reactions share the arc A -> B with different coefficients; everything but via and the maps deleted *)
Definition exs_net : net :=
  mk_net [] [(None, "r", [("A", 2%Z)], [("B", 1%Z)]); (None, "q", [("A", 3%Z); ("C", 1%Z)], [("B", 5%Z)])] [("A", "CC")].
Definition exs_all_but_maps : sdrops := SDrops true true true true false false true true.
Definition exs_maps_only : sdrops := SDrops false false false false true true false false.
Definition exs_back (d : sdrops) : net * option cerr :=
  species_graph_to_hypergraph pick_first "r" true (sdrop_attrs d (hypergraph_to_species_graph true exs_net)).
Example ex_sdrop_nonvacuous :
  bool_decide (two_sided exs_net) = true ∧ size (edges exs_net) = 2%nat ∧
  size (g_arcs (hypergraph_to_species_graph true exs_net)) = 2%nat ∧
  (exs_back exs_all_but_maps).2 = None ∧
  bool_decide (stoich_of <$> edges (exs_back exs_all_but_maps).1 = stoich_of <$> edges exs_net) = true.
Proof. split_and!; by vm_compute. Qed.
(** without the per-reaction maps only the legacy minimum of the shared arc is left: 3A >> 4B comes back as 2A >> B;
    and when the arcs of one reaction disagree (B gets 1 from the arc A->B and 5 from C->B) the importer keeps whichever it
    meets first — the result depends on the iteration order of a set-built graph (the model reports EUnmodelled) *)
Definition exs_net2 : net :=
  mk_net [] [(None, "r", [("A", 2%Z)], [("B", 1%Z)]); (None, "q", [("A", 3%Z)], [("B", 4%Z)])] [].
Definition exs_back2 : net * option cerr :=
  species_graph_to_hypergraph pick_first "r" true (sdrop_attrs exs_maps_only (hypergraph_to_species_graph true exs_net2)).
Example ex_sdrop_maps_needed :
  bool_decide (two_sided exs_net2) = true ∧ exs_back2.2 = None ∧
  bool_decide (stoich_of <$> edges exs_back2.1 = stoich_of <$> edges exs_net2) = false ∧
  (exs_back exs_maps_only).2 = Some EUnmodelled.
Proof. split_and!; by vm_compute. Qed.
