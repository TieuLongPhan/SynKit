(** C10 — proofs: the centre of the centre is the centre; exporting the full ITS with core=True and exporting
    its centre give rules that read back to the same ITS, the centre (either setting of explicit_hydrogen; with reindex=True up
    to the two renumberings). *)
From Coq Require Import String List NArith ZArith Bool Lia.
From SK Require Import lib.LGraph lib.StrJoin model.C10_Model proof.C10_Proof proof.C10_Views proof.C10_Build
  proof.C10_Copy proof.C10_GmlRead proof.C10_GmlWrite proof.C10_Centre proof.C10_Routes proof.C10_HRound proof.C10_GmlEH proof.C10_Reindex
  proof.C10_ReindexEH.
Import ListNotations.
Local Open Scope Z_scope.

Lemma rc_attr_idem a : rc_attr (rc_attr a) = rc_attr a.
Proof. reflexivity. Qed.

Section Idem.
Variable I : gr.
Hypothesis HI : is_ok I.
Let W := proj1 HI.
Let rc := get_rc I.

Lemma rc_adj_some p q x : adj rc p q = Some x -> adj I p q = Some x /\ sel I p q x = true.
Proof.
  unfold rc. rewrite (get_rc_adj I p q HI). destruct (adj I p q) as [y|]; [|discriminate].
  destruct (sel I p q y) eqn:S; [|discriminate]. intros [= ->]. auto.
Qed.
Lemma rc_label_touched m : touched I m = true -> exists a, label I m = Some a /\ label rc m = Some (rc_attr a).
Proof.
  intros T. unfold rc. rewrite (get_rc_label I m HI), T.
  apply (touched_spec I m W) in T. destruct T as (w & x & A & _).
  destruct (adj_ends I m w x W A) as [Hm _].
  apply has_node_label in Hm. destruct Hm as [a La]. exists a. unfold rca. rewrite La. auto.
Qed.
Lemma rc_is_ok : is_ok rc.
Proof.
  split; [apply get_rc_gwf; exact HI|]. intros n b L. unfold rc in L. rewrite (get_rc_label I n HI) in L.
  destruct (touched I n) eqn:T; [|discriminate]. destruct (rc_label_touched n T) as (a & La & _).
  unfold rca in L. rewrite La in L. injection L as <-. simpl. apply (proj2 HI n a La).
Qed.
Lemma is_H_rc m : touched I m = true -> is_H rc m = is_H I m.
Proof. intros T. destruct (rc_label_touched m T) as (a & La & Lr). unfold is_H. rewrite La, Lr. reflexivity. Qed.
Lemma sel_rc p q x : adj I p q = Some x -> sel I p q x = true -> sel rc p q x = true.
Proof.
  intros A S. unfold sel in *. destruct (changed x); [reflexivity|]. simpl in *.
  assert (touched I p = true) as Tp by (apply (touched_spec I p W); exists q, x; unfold sel; rewrite S, orb_true_r; auto).
  assert (touched I q = true) as Tq.
  { apply (touched_spec I q W). exists p, x. rewrite adj_sym. split; [exact A|]. unfold sel. rewrite andb_comm, S, orb_true_r. reflexivity. }
  rewrite (is_H_rc p Tp), (is_H_rc q Tq). exact S.
Qed.

Theorem rc_idem_adj p q : adj (get_rc rc) p q = adj rc p q.
Proof.
  rewrite (get_rc_adj rc p q rc_is_ok). destruct (adj rc p q) as [x|] eqn:A; [|reflexivity].
  destruct (rc_adj_some p q x A) as [AI S]. rewrite (sel_rc p q x AI S). reflexivity.
Qed.
Lemma rc_adj_of p q x : adj I p q = Some x -> sel I p q x = true -> adj rc p q = Some x.
Proof. intros A S. unfold rc. rewrite (get_rc_adj I p q HI), A, S. reflexivity. Qed.

Theorem rc_idem_label m : label (get_rc rc) m = label rc m.
Proof.
  rewrite (get_rc_label rc m rc_is_ok). unfold rc at 3. rewrite (get_rc_label I m HI).
  assert (touched rc m = touched I m) as ->.
  { apply eq_true_iff_eq. rewrite (touched_spec rc m (proj1 rc_is_ok)), (touched_spec I m W). split.
    - intros (w & x & A & S). destruct (rc_adj_some m w x A) as [AI SI]. eauto.
    - intros (w & x & A & S). exists w, x. split; [apply rc_adj_of; assumption|apply sel_rc; assumption]. }
  destruct (touched I m) eqn:T; [|reflexivity]. destruct (rc_label_touched m T) as (a & La & Lr).
  unfold rca. rewrite Lr, La. reflexivity.
Qed.
End Idem.

(** ** equal lookups, equal read-back *)
Lemma IOK_transfer c c' : IOK c -> gwf c' ->
  (forall n, label c' n = label c n) -> (forall u v, adj c' u v = adj c u v) -> IOK c'.
Proof.
  intros (Wc & Hn & He) W' HL HA. split; [exact W'|split].
  - intros n a L. rewrite HL in L. apply (Hn n a L).
  - intros u v x A. rewrite HA in A. destruct (He u v x A) as (a & b & E & O1 & O2 & O3 & Hu & Hv).
    exists a, b. repeat split; auto; unfold has_node in *; rewrite HL; assumption.
Qed.

Lemma gwfb_alltgh_is_ok I : gwfb I = true -> all_tgh I = true -> is_ok I.
Proof.
  intros Hw Ht. split; [apply gwfb_gwf; exact Hw|]. intros n a L. apply assoc_in in L.
  unfold all_tgh in Ht. rewrite forallb_forall in Ht. specialize (Ht _ L). simpl in Ht. destruct (a_tgh a); [discriminate|discriminate].
Qed.

(** ** a reaction centre carries no hcount key *)
Lemma rca_cval I n : cval (rca I n) <= 0.
Proof. unfold rca, cval. destruct (label I n); simpl; lia. Qed.
Lemma centre_hc_free I : is_ok I -> forall n a, label (get_rc I) n = Some a -> cval a <= 0.
Proof.
  intros HI n a L. rewrite (get_rc_label I n HI) in L. destruct (touched I n); [|discriminate]. injection L as <-. apply rca_cval.
Qed.

(** the round trip for either setting of explicit_hydrogen, on a centre *)
Lemma centre_roundtrip_any c (eh : bool) : IOK c -> (forall n a, label c n = Some a -> cval a <= 0) ->
  let I' := gml_to_its (its_to_gml c false false eh) in
  (forall n, has_node I' n = has_node c n) /\
  (forall n a, label c n = Some a ->
     label I' n = Some (gml_node n (tg_el (tG_of a)) (tg_ch (tG_of a)) (tg_ch (tH_of a)))) /\
  (forall u v, adj I' u v = adj c u v).
Proof.
  intros K Hc. destruct eh; [apply gml_roundtrip_eh_iok; assumption|apply gml_roundtrip_iok; assumption].
Qed.

Definition reads_centre (c X : gr) : Prop :=
  (forall n, has_node X n = has_node c n) /\
  (forall n a, label c n = Some a ->
     label X n = Some (gml_node n (tg_el (tG_of a)) (tg_ch (tG_of a)) (tg_ch (tH_of a)))) /\
  (forall u v, adj X u v = adj c u v).
(** ... up to a renumbering f of the atoms *)
Definition reads_centre_by (c : gr) (f : N -> N) (X : gr) : Prop :=
  (forall k, has_node X k = true <-> exists n, In n (node_ids c) /\ k = f n) /\
  (forall n a, label c n = Some a ->
     label X (f n) = Some (gml_node (f n) (tg_el (tG_of a)) (tg_ch (tG_of a)) (tg_ch (tH_of a)))) /\
  (forall u v, In u (node_ids c) -> In v (node_ids c) -> adj X (f u) (f v) = adj c u v).

Lemma centre_roundtrip_reindex_any c (eh : bool) : IOK c -> (forall n a, label c n = Some a -> cval a <= 0) ->
  reads_centre_by c (mapget (enum_from 1%N (node_ids c))) (gml_to_its (its_to_gml c false true eh)).
Proof.
  intros K Hc. destruct eh.
  - apply (gml_roundtrip_reindex_eh_iok c K Hc).
  - destruct (gml_roundtrip_reindex_iok c K) as (_ & A1 & A2 & A3 & _). split; [exact A1|split; [exact A2|exact A3]].
Qed.

(** ** the rules written from an ITS I with core=True and from its centre c with core=True (the centre of the centre) *)
Section Centre.
Variable I : gr.
Hypothesis HI : is_ok I.
Let c := get_rc I.
Hypothesis K : IOK c.

Lemma centre_full (eh : bool) : reads_centre c (gml_to_its (its_to_gml I true false eh)).
Proof. rewrite its_core_is_centre_export. exact (centre_roundtrip_any c eh K (centre_hc_free I HI)). Qed.
Lemma centre_full_reindex (eh : bool) :
  reads_centre_by c (mapget (enum_from 1%N (node_ids c))) (gml_to_its (its_to_gml I true true eh)).
Proof. rewrite its_core_is_centre_export. exact (centre_roundtrip_reindex_any c eh K (centre_hc_free I HI)). Qed.

Let Lcc : forall n, label (get_rc c) n = label c n := rc_idem_label I HI.
Let Acc : forall u v, adj (get_rc c) u v = adj c u v := rc_idem_adj I HI.
Lemma centre_centre_IOK : IOK (get_rc c).
Proof. apply (IOK_transfer c); [exact K|apply get_rc_gwf, rc_is_ok, HI|exact Lcc|exact Acc]. Qed.
Lemma centre_centre_hc n a : label (get_rc c) n = Some a -> cval a <= 0.
Proof. rewrite Lcc. apply (centre_hc_free I HI). Qed.

Lemma centre_centre (eh : bool) : reads_centre c (gml_to_its (its_to_gml c true false eh)).
Proof.
  rewrite its_core_is_centre_export.
  destruct (centre_roundtrip_any (get_rc c) eh centre_centre_IOK centre_centre_hc) as (B1 & B2 & B3). cbv zeta in B1, B2, B3.
  split; [|split].
  - intros n. rewrite B1. unfold has_node. rewrite Lcc. reflexivity.
  - intros n a L. apply B2. rewrite Lcc. exact L.
  - intros u v. rewrite B3. apply Acc.
Qed.
Lemma centre_centre_reindex (eh : bool) :
  reads_centre_by c (mapget (enum_from 1%N (node_ids (get_rc c)))) (gml_to_its (its_to_gml c true true eh)).
Proof.
  rewrite its_core_is_centre_export.
  destruct (centre_roundtrip_reindex_any (get_rc c) eh centre_centre_IOK centre_centre_hc) as (B1 & B2 & B3).
  assert (forall n, In n (node_ids (get_rc c)) <-> In n (node_ids c)) as Hn.
  { intros n. rewrite <- !has_node_in. unfold has_node. rewrite Lcc. reflexivity. }
  split; [|split].
  - intros k. rewrite B1. split; intros (n & H1 & H2); exists n; (split; [apply Hn; exact H1|exact H2]).
  - intros n a L. apply B2. rewrite Lcc. exact L.
  - intros u v Hu Hv. rewrite B3 by (apply Hn; assumption). apply Acc.
Qed.
End Centre.

Theorem two_routes_centre (I : gr) :
  gwfb I = true -> all_tgh I = true -> its_ok (get_rc I) = true ->
  let A := gml_to_its (its_to_gml I true false false) in
  let B := gml_to_its (its_to_gml (get_rc I) true false false) in
  (forall n, label A n = label B n) /\ (forall u v, adj A u v = adj B u v) /\
  (forall n, has_node A n = has_node (get_rc I) n) /\ (forall u v, adj A u v = adj (get_rc I) u v).
Proof.
  intros Hw Ht Hok A B. pose proof (gwfb_alltgh_is_ok I Hw Ht) as HI. pose proof (its_ok_IOK _ Hok) as K.
  destruct (centre_full I HI K false) as (A1 & A2 & A3). destruct (centre_centre I HI K false) as (B1 & B2 & B3).
  fold A in A1, A2, A3. fold B in B1, B2, B3.
  split; [|split; [|split; [exact A1|exact A3]]].
  - intros n. destruct (label (get_rc I) n) as [a|] eqn:L; [rewrite (A2 n a L), (B2 n a L); reflexivity|].
    apply has_node_false in L. pose proof L as L'. rewrite <- A1 in L. rewrite <- B1 in L'. apply has_node_false in L, L'. congruence.
  - intros u v. rewrite A3, B3. reflexivity.
Qed.

(** non-vacuity: a full ITS with a spectator atom (node 40) and an unchanged bond; its centre drops both *)
Definition ex_full : gr :=
  LG (gnodes ex_centre ++ [(40%N, ex_nd "S" 0 0 4)]) (gedges ex_centre ++ [(30%N, 40%N, EA (Some (OP 2 2)) (Some 0))]).
Example two_routes_centre_ex :
  gwfb ex_full = true /\ all_tgh ex_full = true /\ its_ok (get_rc ex_full) = true /\
  has_node (get_rc ex_full) 40 = false /\
  has_node (gml_to_its (its_to_gml ex_full true false false)) 40 = false /\
  has_node (gml_to_its (its_to_gml ex_full false false false)) 40 = true.
Proof. vm_compute. repeat split. Qed.

(** ** the same with reindex=True (default of its_to_gml): both rules are renumberings of the centre *)
Theorem two_routes_centre_reindex (I : gr) :
  gwfb I = true -> all_tgh I = true -> its_ok (get_rc I) = true ->
  let c := get_rc I in
  let fA := mapget (enum_from 1%N (node_ids c)) in
  let fB := mapget (enum_from 1%N (node_ids (get_rc c))) in
  let A := gml_to_its (its_to_gml I true true false) in
  let B := gml_to_its (its_to_gml c true true false) in
  (forall n a, label c n = Some a ->
     let e := tg_el (tG_of a) in let q := tg_ch (tG_of a) in let q' := tg_ch (tH_of a) in
     label A (fA n) = Some (gml_node (fA n) e q q') /\ label B (fB n) = Some (gml_node (fB n) e q q')) /\
  (forall u v, has_node c u = true -> has_node c v = true ->
     adj A (fA u) (fA v) = adj c u v /\ adj B (fB u) (fB v) = adj c u v) /\
  (forall k, has_node A k = true <-> exists n, has_node c n = true /\ k = fA n) /\
  (forall k, has_node B k = true <-> exists n, has_node c n = true /\ k = fB n).
Proof.
  intros Hw Ht Hok c fA fB A B. pose proof (gwfb_alltgh_is_ok I Hw Ht) as HI. pose proof (its_ok_IOK _ Hok) as K.
  destruct (centre_full_reindex I HI K false) as (A1 & A2 & A3). destruct (centre_centre_reindex I HI K false) as (B1 & B2 & B3).
  fold c fA A in A1, A2, A3. fold c fB B in B1, B2, B3.
  split; [|split; [|split]].
  - intros n a L. cbv zeta. split; [apply (A2 n a L)|apply (B2 n a L)].
  - intros u v Hu Hv. apply has_node_in in Hu, Hv. split; [apply A3|apply B3]; assumption.
  - intros k. rewrite A1. split; intros (n & H1 & H2); exists n; (split; [apply has_node_in; exact H1|exact H2]).
  - intros k. rewrite B1. split; intros (n & H1 & H2); exists n; (split; [apply has_node_in; exact H1|exact H2]).
Qed.

(** [its_to_gml_old] models SynKit before commit c14a0f1: the context of the core export of a full ITS contains the spectator
    atom, and the two routes disagree *)
Example two_routes_old_disagree :
  its_to_gml_old ex_full true false false <> its_to_gml (get_rc ex_full) true false false /\
  its_to_gml ex_full true false false = its_to_gml (get_rc ex_full) false false false.
Proof. split; [vm_compute; discriminate|]. unfold its_to_gml. reflexivity. Qed.
