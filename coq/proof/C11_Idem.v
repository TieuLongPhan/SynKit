(** C11 (round 3) — de-duplicating twice changes nothing: both de-duplicators are idempotent (a caller that prunes an
    already pruned list, or reads a re-pruned attribute, gets the same list).  Stdlib lists. *)
From Coq Require Import List.
From SK Require Import model.C11_Model proof.C11_Aut proof.C11_Dedup proof.C11_Main proof.C11_Sig proof.C11_PruneClass.
Import ListNotations.

Lemma subseq_split {X} (a xs : list X) : subseq a xs ->
  forall l1 x l2, a = l1 ++ x :: l2 -> exists m1 m2, xs = m1 ++ x :: m2 /\ incl l1 m1.
Proof.
  induction 1 as [|y l l' Hs IH|y l l' Hs IH]; intros l1 x l2 E.
  - destruct l1; discriminate.
  - destruct (IH l1 x l2 E) as (m1 & m2 & -> & Hi). exists (y :: m1), m2. split; [reflexivity|].
    intros z Hz. right. apply Hi. exact Hz.
  - destruct l1 as [|a0 l1]; simpl in E; inversion E; subst.
    + exists [], l'. split; [reflexivity | intros z []].
    + destruct (IH l1 x l2 eq_refl) as (m1 & m2 & -> & Hi). exists (a0 :: m1), m2. split; [reflexivity|].
      intros z [<-|Hz]; [left; reflexivity | right; apply Hi; exact Hz].
Qed.

Lemma subseq_all_eq {X} (a b : list X) : subseq a b -> NoDup b -> (forall x, In x b -> In x a) -> a = b.
Proof.
  induction 1 as [|y l l' Hs IH|y l l' Hs IH]; intros Hnd Hall.
  - reflexivity.
  - exfalso. inversion Hnd as [|? ? Hn _]; subst. apply Hn. apply (subseq_in _ _ _ Hs). apply Hall. left. reflexivity.
  - inversion Hnd as [|? ? Hn Hnd']; subst. f_equal. apply IH; [exact Hnd'|].
    intros x Hx. destruct (Hall x (or_intror Hx)) as [<-|H]; [contradiction | exact H].
Qed.

Lemma subseq_nodup {X} (a b : list X) : subseq a b -> NoDup b -> NoDup a.
Proof.
  induction 1 as [|y l l' Hs IH|y l l' Hs IH]; intros Hnd; [constructor| |].
  - inversion Hnd; auto.
  - inversion Hnd as [|? ? Hn Hnd']; subst. constructor; [|auto]. intros Hin. apply Hn. eapply subseq_in; eauto.
Qed.

Lemma firsts_idempotent {X} (R : X -> X -> Prop) xs out out2 : NoDup xs ->
  subseq out xs -> (forall x, In x out <-> In x xs /\ first_among R xs x) ->
  subseq out2 out -> (forall x, In x out2 <-> In x out /\ first_among R out x) -> out2 = out.
Proof.
  intros Hnd Hs1 H1 Hs2 H2. apply subseq_all_eq; [exact Hs2 | eapply subseq_nodup; eauto |].
  intros x Hx. apply H2. split; [exact Hx|].
  intros l1 l2 E z Hz. destruct (subseq_split out xs Hs1 l1 x l2 E) as (m1 & m2 & Exs & Hi).
  apply H1 in Hx. destruct Hx as [_ Hf]. apply (Hf m1 m2 Exs z). apply Hi. exact Hz.
Qed.

Lemma dedup_sig_go_total {X} (key : X -> mapping) (sg : mapping -> option sig) (xs : list X) :
  (forall x, In x xs -> sg (key x) <> None) -> forall seen, exists out, dedup_sig_go key sg xs seen = Some out.
Proof.
  induction xs as [|h r IH]; intros Hd seen; simpl; [eauto|].
  destruct (sg (key h)) as [s|] eqn:Es; [|exfalso; apply (Hd h); [left; reflexivity | exact Es]].
  assert (Hr : forall x, In x r -> sg (key x) <> None) by (intros; apply Hd; right; assumption).
  destruct (existsb (sig_eqb s) seen); [apply IH; exact Hr|].
  destruct (IH Hr (s :: seen)) as (o & ->). eauto.
Qed.

(** deduplicate_matches_with_anchor *)
Lemma dedup_anchor_idempotent (X : Type) (key : X -> mapping) (xs : list X) porbs anchor horbs hanchor out :
  NoDup xs -> dedup_anchor_h key xs porbs anchor horbs hanchor = Some out ->
  dedup_anchor_h key out porbs anchor horbs hanchor = Some out.
Proof.
  intros Hnd H.
  destruct (dedup_anchor_first_all X key xs porbs anchor horbs hanchor out Hnd H) as (Hsub & _ & [(-> & -> & ->)|(Hne & Hdef & Hspec)]).
  - reflexivity.
  - assert (Hnd' : NoDup out) by (eapply subseq_nodup; eauto).
    unfold dedup_anchor_h in *. rewrite dedup_anchor_sig in *.
    assert (Hgo : exists out2, dedup_sig_go key (anchor_signature porbs anchor horbs) out [] = Some out2).
    { apply dedup_sig_go_total. intros x Hx. apply Hdef. eapply subseq_in; eauto. }
    destruct Hgo as (out2 & Hgo).
    assert (E : out2 = out).
    { apply (firsts_idempotent (same_sig X key (anchor_signature porbs anchor horbs)) xs out out2 Hnd Hsub Hspec).
      - eapply dedup_sig_go_subseq; eauto.
      - exact (dedup_sig_first X key _ out out2 Hnd' Hgo). }
    destruct porbs, horbs; try (rewrite Hgo, E; reflexivity). destruct Hne as [Hc|Hc]; congruence.
Qed.

(** the pruning step of SynReactor.mappings() *)
Lemma prune_idempotent (X : Type) (key : X -> mapping) (rc : graph) (raw : list X) :
  simple_graph rc -> NoDup raw -> (forall x, In x raw -> on_nodes rc (key x)) ->
  prune key rc (prune key rc raw) = prune key rc raw.
Proof.
  intros Hg Hnd HD.
  pose proof (prune_subseq X key rc raw) as Hs1.
  assert (Hnd' : NoDup (prune key rc raw)) by (eapply subseq_nodup; eauto).
  assert (HD' : forall x, In x (prune key rc raw) -> on_nodes rc (key x)) by (intros x Hx; apply HD; eapply subseq_in; eauto).
  apply (firsts_idempotent
           (fun x z => exists s, is_automorphism n_full e_full rc s /\
                                 forall p h, In (p, h) (key x) <-> exists p', In (p', h) (key z) /\ p = s p')
           raw (prune key rc raw) (prune key rc (prune key rc raw)) Hnd Hs1).
  - intros x. apply (prune_first_of_class X key rc raw Hg Hnd HD x).
  - apply prune_subseq.
  - intros x. apply (prune_first_of_class X key rc (prune key rc raw) Hg Hnd' HD' x).
Qed.

Example ex_idempotent :
  prune (fun m : mapping => m) ex_path (prune (fun m : mapping => m) ex_path ex_raw) = prune (fun m : mapping => m) ex_path ex_raw /\
  length (prune (fun m : mapping => m) ex_path ex_raw) = 2%nat /\ length ex_raw = 3%nat.
Proof. vm_compute. repeat split. Qed.
