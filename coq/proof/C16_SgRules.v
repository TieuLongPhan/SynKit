(** C16 — species graph, rules: when the reactions that share a species pair agree on their rule, the rule comes back too,
    i.e. the whole id ↦ (rule, reactants, products) map is reproduced. *)
From stdpp Require Import gmap strings sets pretty sorting.
From SK Require Import lib.Tok model.C15_Model proof.C15_Proof model.C16_Model proof.C16_Defs proof.C16_Common proof.C16_Sg.
Local Open Scope string_scope.
Local Open Scope list_scope.

(** reactions sharing a (reactant, product) pair carry the same rule *)
Definition rules_agree (H : net) : Prop :=
  ∀ e e' rx rx' u v, edges H !! e = Some rx → edges H !! e' = Some rx' →
    is_Some (r_lhs rx !! u) → is_Some (r_rhs rx !! v) → is_Some (r_lhs rx' !! u) → is_Some (r_rhs rx' !! v) →
    r_rule rx = r_rule rx'.

(** * rule sets of the arcs *)
Definition RInv (done : list tup) (arcs : gmap (string * string) sarc) : Prop :=
  ∀ u v a rule, arcs !! (u, v) = Some a →
    rule ∈ sa_rules a ↔ ∃ t, t ∈ done ∧ t_u t = u ∧ t_v t = v ∧ t_rule t = rule.

Lemma step_RInv done G t : AInv done (g_arcs G) → RInv done (g_arcs G) → RInv (done ++ [t]) (g_arcs (step_tuple G t)).
Proof.
  intros HA HR u v a rule. unfold step_tuple, collapse_pair. cbn [g_arcs].
  pose proof (elem_of_snoc_l done t) as Hold. pose proof (elem_of_snoc_r done t) as Hnew.
  destruct (decide ((u, v) = (t_u t, t_v t))) as [[= -> ->]|Hne].
  - rewrite lookup_insert. intros [= <-]. destruct (g_arcs G !! (t_u t, t_v t)) as [d|] eqn:E; cbn [sa_rules].
    + rewrite elem_of_union, elem_of_singleton, (HR _ _ _ rule E). split.
      * intros [->|(t0 & Hin & ?)]; [exists t|exists t0]; auto.
      * intros (t0 & [Hin| ->]%elem_of_snoc & Hu & Hv & Hr); [right; eauto|by left].
    + rewrite elem_of_singleton. split.
      * intros ->. exists t. auto.
      * intros (t0 & [Hin| ->]%elem_of_snoc & Hu & Hv & Hr); [|done].
        destruct (ai_arc _ _ HA t0 Hin) as [? Hs]. rewrite Hu, Hv in Hs. congruence.
  - rewrite lookup_insert_ne by done. intros Ha. rewrite (HR _ _ _ rule Ha). split.
    + intros (t0 & Hin & ?). exists t0. auto.
    + intros (t0 & [Hin| ->]%elem_of_snoc & Hu & Hv & Hr); [eauto|congruence].
Qed.

Lemma export_RInv im H : RInv (sg_tuples H) (g_arcs (hypergraph_to_species_graph im H)).
Proof.
  apply (export_inv_with RInv (λ _, True)); [done|by intros; apply step_RInv| |done].
  intros ???? Hq. by apply lookup_empty_Some in Hq.
Qed.

(** * rule sets of the grouped entries *)
Definition ERInv (done : list triple) (ents : gmap string sentry) : Prop :=
  ∀ e ent rule, ents !! e = Some ent → rule ∈ se_rules ent ↔ ∃ t, t ∈ done ∧ t.2 = e ∧ rule ∈ sa_rules t.1.2.

Lemma group_triple_rules G ents t :
  ∃ ent', group_triple G ents t = <[ t.2 := ent' ]> ents ∧
          se_rules ent' = se_rules (default (SEntry ∅ ∅ ∅ false) (ents !! t.2)) ∪ sa_rules t.1.2.
Proof.
  unfold group_triple, group_one. destruct (put_first _ _ _) as [rm c1]. destruct (put_first _ _ _) as [pm c2].
  eexists. split; [done|]. done.
Qed.

Lemma group_triple_ERInv H G done ents t : EInv H done ents → ERInv done ents → ERInv (done ++ [t]) (group_triple G ents t).
Proof.
  intros HE HR. destruct (group_triple_rules G ents t) as (ent' & -> & Hrules).
  pose proof (elem_of_snoc_l done t) as Hold. pose proof (elem_of_snoc_r done t) as Hnew.
  intros e ent rule. rewrite lookup_insert_Some. intros [[<- <-]|[Hne Hent]].
  - rewrite Hrules, elem_of_union. destruct (ents !! t.2) as [ent0|] eqn:E0; cbn [default].
    + rewrite (HR _ _ rule E0). split.
      * intros [(t0 & Hin & ?)|Hr]; [exists t0|exists t]; auto.
      * intros (t0 & [Hin| ->]%elem_of_snoc & He & Hr); [left; eauto|by right].
    + cbn [se_rules]. split.
      * intros [Hr%elem_of_empty|Hr]; [done|]. exists t. auto.
      * intros (t0 & [Hin| ->]%elem_of_snoc & He & Hr); [|by right].
        destruct (ei_complete _ _ _ HE t0 Hin) as (? & Hs & _). rewrite He in Hs. congruence.
  - rewrite (HR _ _ rule Hent). split.
    + intros (t0 & Hin & ?). exists t0. auto.
    + intros (t0 & [Hin| ->]%elem_of_snoc & He & Hr); [eauto|congruence].
Qed.

Lemma sg_ents_ERInv H G : AInv (sg_tuples H) (g_arcs G) → NInv (g_nodes G) → ERInv (triples (g_arcs G)) (sg_ents G).
Proof.
  intros HA HN. apply (proj2 (A := EInv H (triples (g_arcs G)) (sg_ents G))).
  apply (foldl_snoc_ind (group_triple G) (λ done ents, EInv H done ents ∧ ERInv done ents) (Forall (triple_ok H))) with (done := []).
  - by intros l l' [? _]%Forall_app.
  - intros done ents t [_ Ht%Forall_inv]%Forall_app [HE HR].
    split; [by apply group_triple_EInv|by eapply group_triple_ERInv].
  - apply Forall_forall. intros t. apply triples_good. by apply AInv_VAInv.
  - split; [split; [by intros ?? ?%lookup_empty_Some|by intros ? ?%elem_of_nil]|by intros ??? ?%lookup_empty_Some].
Qed.

(** the merged rule set of a reaction is exactly its own rule *)
Lemma sg_ents_rules H G : AInv (sg_tuples H) (g_arcs G) → NInv (g_nodes G) → RInv (sg_tuples H) (g_arcs G) →
  two_sided H → rules_agree H →
  ∀ e ent rx, sg_ents G !! e = Some ent → edges H !! e = Some rx → se_rules ent = {[ r_rule rx ]}.
Proof.
  intros HA HN HR H2 Hag e ent rx Hent Hrx. apply set_eq. intros rule.
  rewrite (sg_ents_ERInv H G HA HN e ent rule Hent), elem_of_singleton. split.
  - intros ([[[u v] a] e0] & [Harc Hvia]%elem_of_triples & He & Hr). cbn in He, Hr. subst e0.
    apply (HR _ _ _ rule Harc) in Hr as (t' & Ht' & <- & <- & <-).
    apply (ai_via _ _ HA _ _ _ e Harc) in Hvia as (t & Ht & <- & Hu & Hv).
    apply elem_of_sg_tuples in Ht as (rx1 & Hrx1 & _ & Hu1 & Hv1).
    apply elem_of_sg_tuples in Ht' as (rx2 & Hrx2 & Hrule2 & Hu2 & Hv2).
    assert (rx1 = rx) as -> by congruence. rewrite Hrule2. symmetry.
    eapply (Hag (t_e t) (t_e t') rx rx2 (t_u t') (t_v t')); eauto; rewrite <-?Hu, <-?Hv; eauto.
  - intros ->. destruct (H2 e rx Hrx) as [Hl Hr].
    apply map_choose in Hl as (u & c & Hu). apply map_choose in Hr as (v & d & Hv).
    destruct (triple_of_tuple H G (AInv_VAInv _ _ HA) e rx u c v d Hrx Hu Hv) as [a Hin].
    exists (u, v, a, e). split; [done|]. split; [done|]. cbn. apply elem_of_triples in Hin as [Harc _].
    apply (HR _ _ _ (r_rule rx) Harc). exists (Tup e (r_rule rx) u c v d). split; [|done].
    apply elem_of_sg_tuples. by exists rx.
Qed.

(** * the round trip with rules *)
Lemma species_graph_roundtrip_rules (pick : gset string → string) (default_rule : string) (include_mol mol_attr : bool) (H : net) :
  (∀ x, pick {[ x ]} = x) → two_sided H → wf_rxns H → rules_agree H →
  (species_graph_to_hypergraph pick default_rule mol_attr (hypergraph_to_species_graph include_mol H)).2 = None ∧
  edges (species_graph_to_hypergraph pick default_rule mol_attr (hypergraph_to_species_graph include_mol H)).1 = edges H.
Proof.
  intros Hpick H2 Hwf Hag. destruct (export_inv include_mol H) as [HA HN]. pose proof (export_RInv include_mol H) as HR.
  set (G := hypergraph_to_species_graph include_mol H) in *. pose proof (AInv_VAInv _ _ HA) as HV.
  destruct (species_graph_import pick default_rule mol_attr H G H2 HV HN) as (s' & -> & He & _).
  split; [done|]. cbn [fst].
  assert (edges (if mol_attr then _ else s') = edges s') as -> by (destruct mol_attr; [apply sg_mol_step_edges|done]).
  rewrite He. apply map_eq. intros e. rewrite map_lookup_zip_with. destruct (edges H !! e) as [rx|] eqn:Hrx.
  - destruct (sg_ents_dom H G HV HN H2 e rx Hrx) as [ent Hent]. rewrite Hent. cbn. unfold sg_rule.
    rewrite (sg_ents_rules H G HA HN HR H2 Hag e ent rx Hent Hrx), decide_False by apply non_empty_singleton_L.
    rewrite Hpick, norm_rule_id by (by destruct (Hwf e rx Hrx)). by rewrite rxn_eta.
  - by destruct (sg_ents G !! e).
Qed.

(** * non-vacuity: parallel reactions under one rule ([ex_sg_rules_merged] in C16_Sg.v: without the premise the rule sets merge) *)
Definition ex_sgr_net : net :=
  mk_net [] [(None, "r", [("A", 2%Z)], [("B", 1%Z)]); (None, "r", [("A", 1%Z)], [("B", 3%Z)]); (Some "x", "q", [("B", 1%Z)], [("C", 1%Z)])] [].
Definition ex_sgr_back : net := (species_graph_to_hypergraph pick_first "d" false (hypergraph_to_species_graph false ex_sgr_net)).1.
Example ex_sgr : bool_decide (edges ex_sgr_back = edges ex_sgr_net) = true ∧ size (edges ex_sgr_net) = 3%nat.
Proof. by vm_compute. Qed.
Lemma pick_first_singleton x : pick_first {[ x ]} = x.
Proof. unfold pick_first. by rewrite elements_singleton. Qed.
