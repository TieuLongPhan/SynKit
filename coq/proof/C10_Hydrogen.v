(** C10 — proofs: hydrogen conversions (h_to_explicit / h_to_implicit): total hydrogen count. *)
From Coq Require Import String List NArith ZArith Bool Lia.
From SK Require Import lib.LGraph lib.StrJoin model.C10_Model proof.C10_Views.
Import ListNotations.
Local Open Scope Z_scope.

Lemma hsum_app l1 l2 : hsum (l1 ++ l2) = hsum l1 + hsum l2.
Proof. induction l1 as [|p r IH]; simpl; [reflexivity|]. rewrite IH. lia. Qed.

Lemma filter_all {A} (p : A -> bool) l : (forall x, In x l -> p x = true) -> filter p l = l.
Proof. induction l as [|x r IH]; intros H; [reflexivity|]. simpl. rewrite H by (left; reflexivity). f_equal. apply IH. intros y Hy. apply H. right. exact Hy. Qed.
Lemma filter_none {A} (p : A -> bool) l : (forall x, In x l -> p x = false) -> filter p l = [].
Proof. induction l as [|x r IH]; intros H; [reflexivity|]. simpl. rewrite H by (left; reflexivity). apply IH. intros y Hy. apply H. right. exact Hy. Qed.
Lemma filter_ne_notin h l : ~ In h l -> filter (fun m => negb (N.eqb m h)) l = l.
Proof. intros H. apply filter_all. intros x Hx. apply negb_true_iff, N.eqb_neq. intros ->. contradiction. Qed.

Lemma hsum_upd_node n f l a :
  assoc n l = Some a -> hsum (upd_node n f l) = hsum l - node_h a + node_h (f a).
Proof.
  induction l as [|[k b] r IH]; simpl; [discriminate|].
  destruct (N.eqb_spec n k) as [->|Hne].
  - intros [= ->]. rewrite N.eqb_refl. simpl. lia.
  - intros H. destruct (N.eqb_spec k n); [congruence|]. simpl. rewrite (IH H). lia.
Qed.

Lemma hsum_set_node (g : gr) n f a :
  label g n = Some a -> total_h (set_node g n f) = total_h g - node_h a + node_h (f a).
Proof. apply hsum_upd_node. Qed.

Lemma hsum_filter_ne n l a :
  NoDup (map fst l) -> assoc n l = Some a ->
  hsum (filter (fun p => negb (N.eqb (fst p) n)) l) = hsum l - node_h a.
Proof.
  induction l as [|[k b] r IH]; simpl; [discriminate|]. intros Hnd. inversion Hnd as [|? ? Hnot Hnd']; subst.
  destruct (N.eqb_spec n k) as [->|Hne].
  - intros [= ->]. rewrite N.eqb_refl. simpl.
    assert (filter (fun p : N * natt => negb (N.eqb (fst p) k)) r = r) as ->; [|lia].
    apply filter_all. intros [k' b'] Hin. apply negb_true_iff, N.eqb_neq. intros E. apply Hnot. simpl in E. subst k'.
    apply (in_map fst _ _ Hin).
  - intros H. destruct (N.eqb_spec k n); [congruence|]. simpl. rewrite (IH Hnd' H). lia.
Qed.

Definition bounded (g : gr) (mx : N) : Prop := forall n, In n (node_ids g) -> (n <= mx)%N.

Lemma fold_max_ge l : forall acc n, (In n l \/ (n <= acc)%N) -> (n <= fold_left N.max l acc)%N.
Proof.
  induction l as [|x r IH]; simpl; intros acc n H.
  - destruct H as [[]|H]; exact H.
  - apply IH. destruct H as [[->|H]|H]; [right; lia|left; exact H|right; lia].
Qed.
Lemma bounded_max_id (g : gr) : bounded g (max_id g).
Proof. intros n H. unfold max_id. apply fold_max_ge. left. exact H. Qed.

Definition add_h1 (g : gr) (mx heavy : N) : gr := add_edge (add_node g (N.succ mx) H_att) heavy (N.succ mx) e_single.

Lemma fresh_succ (g : gr) mx : bounded g mx -> has_node g (N.succ mx) = false.
Proof.
  intros B. destruct (has_node g (N.succ mx)) eqn:E; [|reflexivity].
  apply has_node_in in E. apply B in E. lia.
Qed.

Lemma gnodes_add_h1 (g : gr) mx heavy :
  bounded g mx -> has_node g heavy = true -> gnodes (add_h1 g mx heavy) = gnodes g ++ [(N.succ mx, H_att)].
Proof.
  intros B Hh. unfold add_h1. rewrite gnodes_add_edge_exist.
  - rewrite add_node_fresh by (apply fresh_succ; exact B). reflexivity.
  - rewrite has_node_add_node, Hh. apply orb_true_r.
  - rewrite has_node_add_node, N.eqb_refl. reflexivity.
Qed.

Lemma add_h1_props (g : gr) mx heavy :
  bounded g mx -> has_node g heavy = true ->
  bounded (add_h1 g mx heavy) (N.succ mx) /\ label (add_h1 g mx heavy) heavy = label g heavy /\
  total_h (add_h1 g mx heavy) = total_h g + 1.
Proof.
  intros B Hh. pose proof (gnodes_add_h1 g mx heavy B Hh) as E. repeat split.
  - intros n. unfold node_ids. rewrite E, map_app, in_app_iff. simpl. intros [H|[<-|[]]]; [apply B in H|]; lia.
  - unfold label. rewrite E, assoc_app. destruct (assoc heavy (gnodes g)) eqn:A; [reflexivity|].
    apply has_node_label in Hh. destruct Hh as [a Ha]. unfold label in Ha. congruence.
  - unfold total_h. rewrite E, hsum_app. simpl. unfold node_h. simpl. lia.
Qed.

Lemma add_hs_props k heavy : forall (g : gr) mx,
  bounded g mx -> has_node g heavy = true ->
  let st := add_hs k heavy (g, mx) in
  bounded (fst st) (snd st) /\ label (fst st) heavy = label g heavy /\ total_h (fst st) = total_h g + Z.of_nat k.
Proof.
  induction k as [|k IH]; intros g mx B Hh; simpl.
  - repeat split; [exact B|lia].
  - fold (add_h1 g mx heavy). destruct (add_h1_props g mx heavy B Hh) as (B1 & L1 & T1).
    assert (has_node (add_h1 g mx heavy) heavy = true) as Hh1.
    { apply has_node_label. apply has_node_label in Hh. destruct Hh as [a Ha]. exists a. congruence. }
    destruct (IH _ _ B1 Hh1) as (B2 & L2 & T2). repeat split; [exact B2|congruence|].
    rewrite T2, T1. lia.
Qed.

Lemma node_h_dec_h c a : node_h (dec_h c a) = node_h a - c.
Proof. unfold node_h, dec_h, el_is_H. simpl. lia. Qed.

Lemma bounded_set_node (g : gr) mx n f : bounded g mx -> bounded (set_node g n f) mx.
Proof. intros B m. rewrite node_ids_set_node. apply B. Qed.

Lemma node_h_dec_h_its c a : node_h (dec_h_its c a) = node_h a - c.
Proof. unfold node_h, dec_h_its, el_is_H. simpl. lia. Qed.

Lemma hexp_step_gen_false st heavy : hexp_step_gen false st heavy = hexp_step st heavy.
Proof. destruct st as [g mx]. unfold hexp_step_gen, hexp_step, hexp_count. destruct (label g heavy); reflexivity. Qed.

Lemma hexp_step_props its (st : gr * N) heavy :
  bounded (fst st) (snd st) ->
  bounded (fst (hexp_step_gen its st heavy)) (snd (hexp_step_gen its st heavy)) /\
  total_h (fst (hexp_step_gen its st heavy)) = total_h (fst st).
Proof.
  destruct st as [g mx]. simpl. intros B. unfold hexp_step_gen.
  destruct (label g heavy) as [a|] eqn:La; [|split; [exact B|reflexivity]].
  cbv zeta. set (c := hexp_count its a).
  destruct (Z.leb_spec c 0) as [Hc|Hc]; [split; [exact B|reflexivity]|].
  assert (has_node g heavy = true) as Hh by (apply has_node_label; eauto).
  pose proof (add_hs_props (Z.to_nat c) heavy g mx B Hh) as P. cbv zeta in P.
  destruct (add_hs (Z.to_nat c) heavy (g, mx)) as [g1 mx1]. simpl in P. destruct P as (B1 & L1 & T1).
  simpl. split; [apply bounded_set_node; exact B1|].
  rewrite (hsum_set_node g1 heavy _ a) by congruence.
  destruct its; [rewrite node_h_dec_h_its|rewrite node_h_dec_h]; rewrite T1; lia.
Qed.

Lemma hexp_fold_props its ns : forall st : gr * N,
  bounded (fst st) (snd st) -> total_h (fst (fold_left (hexp_step_gen its) ns st)) = total_h (fst st).
Proof.
  induction ns as [|n r IH]; intros st B; simpl; [reflexivity|].
  destruct (hexp_step_props its st n B) as (B1 & T1). rewrite IH by exact B1. exact T1.
Qed.

Lemma gnodes_normalize (g : gr) : gnodes (normalize_edge_orders g) = gnodes g.
Proof. reflexivity. Qed.

(** making hydrogens explicit never changes the total hydrogen count — any graph, any node list, both modes *)
Theorem h_total_explicit (g : gr) (nodes : option (list N)) (its : bool) :
  total_h (h_to_explicit g nodes its) = total_h g.
Proof.
  unfold h_to_explicit.
  set (ns := match nodes with Some [] | None => node_ids g | Some l => l end).
  assert (total_h (fst (fold_left (hexp_step_gen its) ns (copy g, max_id g))) = total_h g) as E.
  { rewrite hexp_fold_props; [reflexivity|]. simpl. intros n H. apply (bounded_max_id g). exact H. }
  destruct its; [unfold total_h in *; rewrite gnodes_normalize|]; exact E.
Qed.

Lemma is_H_set_node_inc (g : gr) x m : is_H (set_node g x inc_h) m = is_H g m.
Proof. unfold is_H. rewrite label_set_node. destruct (N.eqb m x), (label g m); reflexivity. Qed.

Lemma node_h_inc_h a : node_h (inc_h a) = node_h a + 1.
Proof. unfold node_h, inc_h, el_is_H. simpl. lia. Qed.

Lemma is_H_remove (g : gr) h m : m <> h -> is_H (remove_node g h) m = is_H g m.
Proof. intros H. unfold is_H. rewrite label_remove_node. destruct (N.eqb_spec m h); [congruence|reflexivity]. Qed.

Lemma nbrs_remove (g : gr) h n : n <> h -> nbrs (remove_node g h) n = filter (fun m => negb (N.eqb m h)) (nbrs g n).
Proof.
  intros Hn. unfold nbrs, remove_node. simpl. induction (gedges g) as [|[[a b] x] r IH]; [reflexivity|].
  simpl. destruct (N.eqb_spec a h) as [->|Ha]; simpl.
  - destruct (N.eqb_spec h n); [congruence|]. destruct (N.eqb_spec b n) as [->|]; simpl.
    + rewrite N.eqb_refl. simpl. exact IH.
    + exact IH.
  - destruct (N.eqb_spec b h) as [->|Hb]; simpl.
    + destruct (N.eqb_spec a n) as [->|]; simpl; [rewrite N.eqb_refl; simpl; exact IH|].
      destruct (N.eqb_spec h n); [congruence|exact IH].
    + destruct (N.eqb_spec a n) as [->|]; simpl.
      * destruct (N.eqb_spec b h); [congruence|]. simpl. f_equal. exact IH.
      * destruct (N.eqb_spec b n) as [->|]; simpl; [|exact IH].
        destruct (N.eqb_spec a h); [congruence|]. simpl. f_equal. exact IH.
Qed.

Lemma filter_filter {A} (p q : A -> bool) l : filter p (filter q l) = filter (fun x => q x && p x) l.
Proof. induction l as [|x r IH]; simpl; [reflexivity|]. destruct (q x); simpl; [destruct (p x)|]; rewrite ?IH; reflexivity. Qed.
Lemma filter_length_le {A} (p : A -> bool) l : (length (filter p l) <= length l)%nat.
Proof. induction l as [|x r IH]; simpl; [lia|]. destruct (p x); simpl; lia. Qed.

(** the graph after one loop iteration on hydrogen [h] whose single heavy neighbour is [x] *)
Definition fold1 (g : gr) (x h : N) : gr := remove_node (set_node g x inc_h) h.

Lemma himp_step_single (g : gr) h x : heavy_nbrs g h = [x] -> himp_step g h = fold1 g x h.
Proof. unfold himp_step, heavy_nbrs. intros ->. reflexivity. Qed.
Lemma himp_step_none (g : gr) h : heavy_nbrs g h = [] -> himp_step g h = g.
Proof. unfold himp_step, heavy_nbrs. intros ->. reflexivity. Qed.

Lemma heavy_nbrs_fold1 (g : gr) x h n :
  n <> h -> heavy_nbrs (fold1 g x h) n = filter (fun m => negb (N.eqb m h)) (heavy_nbrs g n).
Proof.
  intros Hn. unfold heavy_nbrs, fold1. rewrite nbrs_remove by exact Hn. simpl.
  rewrite !filter_filter. apply filter_ext_in. intros m _.
  destruct (N.eqb_spec m h) as [->|Hm]; simpl; [rewrite andb_false_r; reflexivity|].
  rewrite is_H_remove by exact Hm. rewrite is_H_set_node_inc, andb_true_r. reflexivity.
Qed.

(** the per-node domain condition, as a proposition about the current graph *)
Definition ok_at (g : gr) (n : N) (a : natt) : Prop :=
  el_is_H a = true ->
  dflt (a_hc a) 0 = 0 /\ (heavy_nbrs g n = [] \/ exists x, heavy_nbrs g n = [x] /\ has_node g x = true).
Definition dom (g : gr) : Prop := forall n a, label g n = Some a -> ok_at g n a.

Lemma h_dom_dom (g : gr) : h_dom g = true -> dom g.
Proof.
  unfold h_dom. rewrite forallb_forall. intros H n a Hl Hel. apply assoc_in in Hl.
  specialize (H _ Hl). unfold h_ok_node in H. simpl in H.
  rewrite Hel in H. simpl in H. apply andb_true_iff in H as [H1 H2]. split; [apply Z.eqb_eq; exact H1|].
  destruct (heavy_nbrs g n) as [|x [|y r]]; [left; reflexivity|right; exists x; auto|discriminate].
Qed.

Lemma node_ids_remove_node (g : gr) h : node_ids (remove_node g h) = filter (fun m => negb (N.eqb m h)) (node_ids g).
Proof.
  unfold node_ids, remove_node. simpl. induction (gnodes g) as [|[k a] r IH]; simpl; [reflexivity|].
  destruct (N.eqb k h); simpl; rewrite IH; reflexivity.
Qed.
Lemma has_node_remove_node (g : gr) h y : has_node (remove_node g h) y = if N.eqb y h then false else has_node g y.
Proof. unfold has_node. rewrite label_remove_node. destruct (N.eqb y h); reflexivity. Qed.

Lemma is_H_label (g : gr) h : is_H g h = true <-> exists a, label g h = Some a /\ el_is_H a = true.
Proof.
  unfold is_H. destruct (label g h) as [a|]; split.
  - intros H. exists a. split; [reflexivity|exact H].
  - intros (b & [= <-] & Hb). exact Hb.
  - discriminate.
  - intros (b & Hb & _). discriminate.
Qed.

Definition Inv (g : gr) (hs : list N) : Prop :=
  NoDup (node_ids g) /\ dom g /\ (forall h, In h hs -> is_H g h = true) /\ NoDup hs.

Lemma fold1_step (g : gr) x h a r :
  Inv g (h :: r) -> label g h = Some a -> el_is_H a = true -> heavy_nbrs g h = [x] -> has_node g x = true ->
  Inv (fold1 g x h) r /\ total_h (fold1 g x h) = total_h g.
Proof.
  intros (Hnd & Hdom & HH & Hhs) La Hel Hx Hhx.
  assert (is_H g x = false) as HxH.
  { assert (In x (heavy_nbrs g h)) as Hin by (rewrite Hx; left; reflexivity).
    unfold heavy_nbrs in Hin. apply filter_In in Hin. destruct Hin as [_ Hin]. apply negb_true_iff in Hin. exact Hin. }
  assert (x <> h) as Hxh.
  { intros ->. assert (is_H g h = true) as E by (apply HH; left; reflexivity). congruence. }
  destruct (Hdom h a La Hel) as [Hc _].
  apply has_node_label in Hhx. destruct Hhx as [ax Lx].
  split; [split; [|split; [|split]]|].
  - unfold fold1. rewrite node_ids_remove_node, node_ids_set_node. apply NoDup_filter. exact Hnd.
  - intros n a' Ln Hel'. unfold fold1 in Ln. rewrite label_remove_node in Ln.
    destruct (N.eqb_spec n h) as [|Hnh]; [discriminate|]. rewrite label_set_node in Ln.
    assert (n <> x) as Hnx.
    { intros ->. rewrite N.eqb_refl, Lx in Ln. simpl in Ln. injection Ln as <-.
      unfold is_H in HxH. rewrite Lx in HxH. unfold inc_h, el_is_H in Hel'. simpl in Hel'. unfold el_is_H in HxH. congruence. }
    destruct (N.eqb_spec n x); [congruence|].
    destruct (Hdom n a' Ln Hel') as [Hc' Hn']. split; [exact Hc'|].
    rewrite heavy_nbrs_fold1 by exact Hnh.
    destruct Hn' as [->|(y & -> & Hy)]; [left; reflexivity|]. simpl.
    destruct (N.eqb_spec y h) as [->|Hyh]; simpl; [left; reflexivity|]. right. exists y. split; [reflexivity|].
    unfold fold1. rewrite has_node_remove_node. destruct (N.eqb_spec y h); [congruence|]. rewrite has_node_set_node. exact Hy.
  - intros h' Hin. inversion Hhs as [|? ? Hnot Hr]; subst.
    assert (h' <> h) by (intros ->; contradiction).
    unfold fold1. rewrite is_H_remove by assumption. rewrite is_H_set_node_inc. apply HH. right. exact Hin.
  - inversion Hhs; assumption.
  - unfold fold1, total_h, remove_node. simpl.
    rewrite (hsum_filter_ne h _ a).
    + rewrite (hsum_upd_node x inc_h _ ax Lx). rewrite node_h_inc_h. unfold node_h at 3. rewrite Hel, Hc. lia.
    + rewrite fst_upd_node. exact Hnd.
    + rewrite assoc_upd_node. destruct (N.eqb_spec h x); [congruence|]. exact La.
Qed.

Lemma himp_fold_total hs : forall g : gr, Inv g hs -> total_h (fold_left himp_step hs g) = total_h g.
Proof.
  induction hs as [|h r IH]; intros g HI; simpl; [reflexivity|].
  destruct HI as (Hnd & Hdom & HH & Hhs).
  assert (is_H g h = true) as Hh by (apply HH; left; reflexivity).
  apply is_H_label in Hh. destruct Hh as (a & La & Hel).
  destruct (Hdom h a La Hel) as [Hc [Hn|(x & Hx & Hhx)]].
  - rewrite himp_step_none by exact Hn. apply IH. split; [exact Hnd|split; [exact Hdom|split]].
    + intros h' Hin. apply HH. right. exact Hin.
    + inversion Hhs; assumption.
  - rewrite (himp_step_single g h x Hx).
    destruct (fold1_step g x h a r (conj Hnd (conj Hdom (conj HH Hhs))) La Hel Hx Hhx) as [HI' T].
    rewrite IH by exact HI'. exact T.
Qed.

(** folding explicit hydrogens into hcount keeps the total hydrogen count, on the domain [h_dom]
    (stated on [copy g], the adjacency-ordered view networkx iterates) *)
Theorem h_total_implicit (g : gr) :
  NoDup (node_ids g) -> h_dom (copy g) = true -> total_h (h_to_implicit g) = total_h g.
Proof.
  intros Hnd Hd. unfold h_to_implicit. cbv zeta.
  rewrite himp_fold_total; [reflexivity|].
  split; [exact Hnd|split; [apply h_dom_dom; exact Hd|split]].
  - intros h Hin. apply filter_In in Hin. tauto.
  - apply NoDup_filter. exact Hnd.
Qed.

(** ** non-vacuity and the cases outside the domain *)
Local Open Scope string_scope.
Definition mk (el : string) (hc : Z) : natt := NA (Some (s2l el)) (Some false) (Some hc) (Some 0) (Some 0) None.
Definition e1 : eatt := EA (Some (OS 2)) None.
(** CH3-NH2 written implicitly, and CH4 with one of its hydrogens explicit (node 7) *)
Definition ex_methylamine : gr := LG [(1, mk "C" 3); (2, mk "N" 2)]%N [(1, 2, e1)]%N.
Definition ex_ch4_partial : gr := LG [(5, mk "C" 3); (7, mk "H" 0)]%N [(7, 5, e1)]%N.
(** diborane-like bridge B-H-B, H2, and a hydrogen that carries an hcount of its own *)
Definition ex_bridge : gr := LG [(1, mk "B" 2); (2, mk "H" 0); (3, mk "B" 2)]%N [(1, 2, e1); (2, 3, e1)]%N.
Definition ex_h2 : gr := LG [(1, mk "H" 0); (2, mk "H" 0)]%N [(1, 2, e1)]%N.
Definition ex_hh : gr := LG [(1, mk "C" 3); (2, mk "H" 1)]%N [(1, 2, e1)]%N.

Example h_total_explicit_ex :
  total_h ex_methylamine = 5 /\ total_h (h_to_explicit ex_methylamine None false) = 5 /\
  length (gnodes (h_to_explicit ex_methylamine None false)) = 7%nat.
Proof. vm_compute. auto. Qed.
Example h_total_implicit_ex :
  NoDup (node_ids ex_ch4_partial) /\ h_dom (copy ex_ch4_partial) = true /\
  total_h ex_ch4_partial = 4 /\ gnodes (h_to_implicit ex_ch4_partial) = [(5%N, mk "C" 4)].
Proof. split; [repeat constructor; simpl; intuition discriminate|vm_compute; auto]. Qed.
(** outside the domain the count does change: a bridging hydrogen is credited to both neighbours, and the
    hcount of a hydrogen node is dropped with it; H2 is in the domain and is kept *)
Example h_total_implicit_bridge :
  h_dom (copy ex_bridge) = false /\ total_h ex_bridge = 5 /\ total_h (h_to_implicit ex_bridge) = 6.
Proof. vm_compute. auto. Qed.
Example h_total_implicit_hh :
  h_dom (copy ex_hh) = false /\ total_h ex_hh = 5 /\ total_h (h_to_implicit ex_hh) = 4.
Proof. vm_compute. auto. Qed.
Example h_total_implicit_h2 :
  h_dom (copy ex_h2) = true /\ total_h (h_to_implicit ex_h2) = 2 /\
  (* [h_to_implicit_old] models SynKit before commit 7497a0b: the molecule is lost *)
  gnodes (h_to_implicit_old ex_h2) = [].
Proof. vm_compute. auto. Qed.
