(** C02 — the radius-k context on ITS graphs of ANY label shape (pair labels of store=True, absent labels):
    extract_k on [sits] (model/C02_Store.v) as an instance of the generic ball theorems of proof/C02_Ball.v. *)
From Coq Require Import List NArith ZArith Bool Lia.
From SK Require Import lib.LGraph model.C01_Model model.C01_Opts model.C02_Model model.C02_Store proof.C02_Generic
                       proof.C02_Store proof.C02_Wfb proof.C02_Ball.
Import ListNotations.
Local Open Scope Z_scope.

(** the generic [knn_g] at [its] is [knn] of model/C02_Model.v *)
Lemma knn_g_its (g : its) S k : knn_g g S k = knn g S k.
Proof. reflexivity. Qed.

(** * extract_k on ITS graphs with pair / absent labels *)
Lemma rcS_nodes_in K d m (g : sits) n : NoDup (node_ids g) -> In n (node_ids (get_rc_S K d m g)) -> In n (node_ids g).
Proof. exact (rcg_nodes_in (selS K) (selS_hh K) ish_S cc_S d m g n). Qed.

Theorem ctxS_spec (g : sits) : wf g -> forall k, (1 <= k)%nat ->
  let Bk := dist_le_g g (node_ids (get_rc_S K_default false false g)) k in
  (forall n, In n (node_ids (extract_k_S g k)) <-> Bk n) /\
  (forall n a, label (extract_k_S g k) n = Some a <-> label g n = Some a /\ Bk n) /\
  (forall u v e, adj (extract_k_S g k) u v = Some e <-> adj g u v = Some e /\ Bk u /\ Bk v).
Proof.
  intros W k Hk. destruct k as [|k]; [lia|].
  change (extract_k_S g (S k)) with (ball_sub g (node_ids (get_rc_S K_default false false g)) (S k)).
  apply ball_sub_spec; [exact W|]. intros s. apply rcS_nodes_in. destruct W as [W _]. exact W.
Qed.

Lemma rcS_wf K d m (g : sits) : wf g -> wf (get_rc_S K d m g).
Proof. exact (rcg_wf (selS K) (selS_hh K) ish_S cc_S d m g). Qed.

(** centre = context(0) within context(k) within context(k') within the ITS, as atom sets and as sets of bonded pairs
    (the centre's bonds carry is_mtg = data.get("is_mtg", False), the ITS bond may lack the key: bond ATTRIBUTES are compared
    from radius 1 on) *)
Theorem ctxS_chain (g : sits) : wf g -> forall k k', (k <= k')%nat ->
  extract_k_S g 0 = get_rc_S K_default false false g /\
  (forall n, In n (node_ids (extract_k_S g k)) -> In n (node_ids (extract_k_S g k'))) /\
  (forall u v, adj (extract_k_S g k) u v <> None -> adj (extract_k_S g k') u v <> None) /\
  ((1 <= k)%nat -> forall u v e, adj (extract_k_S g k) u v = Some e -> adj (extract_k_S g k') u v = Some e) /\
  (forall n, In n (node_ids (extract_k_S g k')) -> In n (node_ids g)) /\
  (forall u v, adj (extract_k_S g k') u v <> None -> adj g u v <> None).
Proof.
  intros W k k' Hk. split; [reflexivity|].
  set (C := get_rc_S K_default false false g). pose proof (rcS_wf K_default false false g W) as WC.
  assert (forall n, In n (node_ids C) -> In n (node_ids g)) as HS by (intros n; apply rcS_nodes_in; exact (proj1 W)).
  assert (forall u v y, adj C u v = Some y -> exists x, adj g u v = Some x) as HCe.
  { intros u v y E. apply (rcS_edges K_default false false g W) in E. destruct E as (x & Ax & _). eauto. }
  assert (forall j, (forall n, In n (node_ids (extract_k_S g j)) -> In n (node_ids g)) /\
                    (forall u v, adj (extract_k_S g j) u v <> None -> adj g u v <> None) /\
                    (forall n, In n (node_ids C) -> In n (node_ids (extract_k_S g (S j)))) /\
                    (forall u v, adj C u v <> None -> adj (extract_k_S g (S j)) u v <> None)) as H.
  { intros j. destruct (ball_sub_within g (node_ids C) (S j) W HS) as (_ & _ & B3 & B4). split; [|split; [|split; [exact B3|]]].
    - destruct j as [|j]; [exact HS|apply (ball_sub_within g (node_ids C) (S j) W HS)].
    - intros u v Ad. destruct (adj (extract_k_S g j) u v) as [y|] eqn:E; [|congruence]. destruct j as [|j].
      + destruct (HCe u v y E) as (x & ->). discriminate.
      + apply (ball_sub_within g (node_ids C) (S j) W HS) in E. rewrite E. discriminate.
    - intros u v Ad. destruct (adj C u v) as [y|] eqn:E; [|congruence]. destruct (HCe u v y E) as (x & Ax).
      destruct (adj_some_nodes C u v y WC E) as [Iu Iv]. change (extract_k_S g (S j)) with (ball_sub g (node_ids C) (S j)).
      rewrite (B4 u v x Ax Iu Iv). discriminate. }
  split; [|split; [|split; [|split; apply H]]].
  - destruct k as [|k], k' as [|k']; [auto|apply H|lia|apply (ball_sub_mono g (node_ids C) (S k) (S k') W Hk)].
  - destruct k as [|k], k' as [|k']; [auto|apply H|lia|]. intros u v Ad.
    destruct (adj (extract_k_S g (S k)) u v) as [e|] eqn:E; [|congruence].
    change (extract_k_S g (S k')) with (ball_sub g (node_ids C) (S k')).
    rewrite (proj2 (ball_sub_mono g (node_ids C) (S k) (S k') W Hk) u v e E). discriminate.
  - intros H1. destruct k as [|k]; [lia|]. destruct k' as [|k']; [lia|]. apply (ball_sub_mono g (node_ids C) (S k) (S k') W Hk).
Qed.

(** non-vacuity: the store=True ITS of  H-H + C=C -> H-H + C-C  with a spectator chain: centre {1,2,3,4} (H-H forced), radius 1 adds 5 *)
Definition ctxS_node (n : Z) (el : N) : inodeS := INS n (el, el) (false, false) (0, 0) (0, 0) ([], []) (NA el false 0 0 []) (NA el false 0 0 []).
Definition ctxS_ex : itsS :=
  LG [(1%N, ctxS_node 1 2%N); (2%N, ctxS_node 2 2%N); (3%N, ctxS_node 3 70%N); (4%N, ctxS_node 4 70%N); (5%N, ctxS_node 5 70%N); (6%N, ctxS_node 6 70%N)]
     [(1%N, 2%N, IE 2 2 0); (3%N, 4%N, IE 4 2 2); (4%N, 5%N, IE 2 2 0); (5%N, 6%N, IE 2 2 0)].
Example C02_ctxS_nonvacuous :
  wf (emb_S ctxS_ex) /\
  node_ids (extract_k_S (emb_S ctxS_ex) 0) = [3%N; 4%N; 1%N; 2%N] /\
  node_ids (extract_k_S (emb_S ctxS_ex) 1) = [1%N; 2%N; 3%N; 4%N; 5%N] /\
  node_ids (ball_sub (emb_S ctxS_ex) [6%N; 99%N] 1) = [5%N; 6%N] /\
  dist_le_g (emb_S ctxS_ex) [3%N] 2 5%N.
Proof.
  split; [|split; [|split; [|split]]]; try (vm_compute; reflexivity).
  - apply wfb_sound. reflexivity.
  - exists 3%N, 2%nat. split; [left; reflexivity|]. split; [lia|].
    apply (walk_g_step _ 3%N 4%N 5%N 1%nat); [apply (walk_g_step _ 3%N 3%N 4%N 0%nat); [constructor|vm_compute; discriminate]|vm_compute; discriminate].
Qed.
