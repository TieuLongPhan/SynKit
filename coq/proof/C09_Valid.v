(** C09 — AAMValidator at graph level: the matcher [is_isomorphic] the correspondence runs answers true exactly
    when a label-preserving isomorphism exists (bridge to the verified enumerator lib/Mono.v), hence accepts every
    renumbering and rejects exactly the mappings whose ITS / centre is not isomorphic. *)
From Coq Require Import List NArith ZArith Bool Arith Lia Permutation.
From SK Require Import lib.LGraph lib.Mono lib.C01_GraphLemmas model.C01_Model model.C02_Model model.C09_Model proof.C09_Lists.
Import ListNotations.

(** [its_emb g1 g2 f]: f maps the nodes of g2 injectively into g1, keeps both halves of typesGH (node_match) and
    carries bonds to bonds with the same order pair and non-bonds to non-bonds (edge_match, induced) *)
Definition its_emb (g1 g2 : its) (f : N -> N) : Prop :=
  (forall u, In u (node_ids g2) -> In (f u) (node_ids g1) /\ node_match (lbl g1 (f u)) (lbl g2 u) = true) /\
  (forall u v, In u (node_ids g2) -> In v (node_ids g2) -> f u = f v -> u = v) /\
  (forall u v, In u (node_ids g2) -> In v (node_ids g2) -> u <> v ->
     match LGraph.adj g2 u v, LGraph.adj g1 (f u) (f v) with
     | Some b, Some b' => edge_match b' b = true
     | None, None => True
     | _, _ => False
     end).
(** isomorphic: equally many nodes and bonds and such a map (an injection between equinumerous duplicate-free node
    lists is a bijection) *)
Definition its_isomorphic (g1 g2 : its) : Prop :=
  length (gnodes g1) = length (gnodes g2) /\ length (gedges g1) = length (gedges g2) /\ exists f, its_emb g1 g2 f.

(** what [its_isomorphic] reads of a graph: the node ids, the number of bonds, the labels as far as [node_match] looks
    at them and the bonds as far as [edge_match] does (the order pair, not standard_order) *)
Definition es (e : iedge) : iedge := IE (e_G e) (e_H e) 0.
Definition its_same (g g' : its) : Prop :=
  Permutation (node_ids g) (node_ids g') /\ length (gedges g) = length (gedges g') /\
  (forall n x, node_match (lbl g n) x = node_match (lbl g' n) x /\ node_match x (lbl g n) = node_match x (lbl g' n)) /\
  (forall u v, option_map es (LGraph.adj g u v) = option_map es (LGraph.adj g' u v)).
Lemma its_same_refl g : its_same g g.
Proof. split; [apply Permutation_refl|repeat split]. Qed.
Lemma its_isomorphic_same g1 g1' g2 g2' : its_same g1 g1' -> its_same g2 g2' -> its_isomorphic g1 g2 -> its_isomorphic g1' g2'.
Proof.
  intros (N1 & M1 & L1 & A1) (N2 & M2 & L2 & A2) (Ln & Le & f & A & B & C).
  assert (K : forall g : its, length (gnodes g) = length (node_ids g)) by (intros g; unfold node_ids; rewrite map_length; reflexivity).
  assert (I2 : forall u, In u (node_ids g2') -> In u (node_ids g2)) by (intros u; apply Permutation_in, Permutation_sym, N2).
  split; [rewrite !K, <- (Permutation_length N1), <- (Permutation_length N2), <- !K; exact Ln|].
  split; [rewrite <- M1, <- M2; exact Le|]. exists f. split; [|split].
  - intros u Iu. destruct (A u (I2 u Iu)) as (X & Y). split; [apply (Permutation_in _ N1); exact X|].
    rewrite <- (proj1 (L1 _ _)), <- (proj2 (L2 _ _)). exact Y.
  - intros u v Iu Iv. apply B; auto.
  - intros u v Iu Iv Hne. specialize (C u v (I2 u Iu) (I2 v Iv) Hne). specialize (A1 (f u) (f v)). specialize (A2 u v).
    destruct (LGraph.adj g2 u v) as [b|], (LGraph.adj g2' u v) as [b2|]; try discriminate A2;
      destruct (LGraph.adj g1 (f u) (f v)) as [b'|], (LGraph.adj g1' (f u) (f v)) as [b2'|]; try discriminate A1; try contradiction; auto.
    assert (X1 : es b' = es b2') by (simpl in A1; congruence). assert (X2 : es b = es b2) by (simpl in A2; congruence).
    change (edge_match (es b2') (es b2) = true). rewrite <- X1, <- X2. exact C.
Qed.

Lemma combine_map_self (f : N -> N) l : combine l (map f l) = map (fun u => (u, f u)) l.
Proof. induction l; simpl; congruence. Qed.
Lemma in_two_split {X} (a b : X) m : In a m -> In b m -> a <> b ->
  (exists l1 l2 l3, m = l1 ++ a :: l2 ++ b :: l3) \/ (exists l1 l2 l3, m = l1 ++ b :: l2 ++ a :: l3).
Proof.
  intros Ia Ib Hne. apply in_split in Ia. destruct Ia as (l1 & r & ->).
  apply in_app_or in Ib. destruct Ib as [Ib|[Ib|Ib]]; [|congruence|].
  - right. apply in_split in Ib. destruct Ib as (k1 & k2 & ->). exists k1, k2, r. rewrite <- app_assoc. reflexivity.
  - left. apply in_split in Ib. destruct Ib as (k1 & k2 & ->). exists l1, k1, k2. reflexivity.
Qed.
Definition mfun (m : mapping) (u : N) : N := match assoc u m with Some h => h | None => 0%N end.
Lemma mfun_in (m : mapping) u : NoDup (map fst m) -> In u (map fst m) -> In (u, mfun m u) m.
Proof.
  intros Hnd I. apply in_map_iff in I. destruct I as ([a h] & E & I). simpl in E. subst a.
  unfold mfun. rewrite (assoc_nodup_in u m h Hnd I). exact I.
Qed.
Lemma any_spec {X} (f : X -> bool) l : any f l = true <-> exists x, In x l /\ f x = true.
Proof.
  induction l as [|x l IH]; simpl.
  - split; [discriminate|intros (x & [] & _)].
  - destruct (f x) eqn:E.
    + split; auto. intros _. exists x. auto.
    + rewrite IH. split; intros (y & I & Hy); [exists y; auto|]. destruct I as [->|I]; [congruence|exists y; auto].
Qed.

Section Bridge.
Variables g1 g2 : its.     (* host g1, pattern g2 *)

Definition mvalid := valid (node_ids g1) (lbl g2) (lbl g1) (LGraph.adj g2) (LGraph.adj g1) node_match edge_match true.
Definition mextend := extend (node_ids g1) (lbl g2) (lbl g1) (LGraph.adj g2) (LGraph.adj g1) node_match edge_match true.

Lemma edge_ok_emb u v hu hv :
  edge_ok (LGraph.adj g2) (LGraph.adj g1) edge_match true u hu (v, hv) = true <->
  match LGraph.adj g2 u v, LGraph.adj g1 hu hv with
  | Some b, Some b' => edge_match b' b = true
  | None, None => True
  | _, _ => False
  end.
Proof.
  unfold edge_ok; simpl. destruct (LGraph.adj g2 u v), (LGraph.adj g1 hu hv); try tauto; split; try discriminate; tauto.
Qed.

Lemma emb_valid_list f : its_emb g1 g2 f ->
  forall l, NoDup l -> incl l (node_ids g2) -> mvalid (map (fun u => (u, f u)) l).
Proof.
  intros (E1 & E2 & E3). induction l as [|p l IH]; intros Hnd Hin; simpl; [constructor|].
  inversion Hnd as [|? ? Hp Hnd']; subst.
  assert (Ip : In p (node_ids g2)) by (apply Hin; left; reflexivity).
  assert (Hl : incl l (node_ids g2)) by (intros x Ix; apply Hin; right; exact Ix).
  constructor; [apply IH; auto | apply E1; auto |].
  unfold ok. rewrite (proj2 (E1 p Ip)). simpl. apply andb_true_intro. split.
  - apply fresh_spec. rewrite map_map. simpl. intros I. apply in_map_iff in I. destruct I as (v & Ev & Iv).
    apply Hp. rewrite <- (E2 v p (Hl v Iv) Ip Ev). exact Iv.
  - apply forallb_forall. intros [v hv] I. apply in_map_iff in I. destruct I as (w & Ew & Iw). inversion Ew; subst.
    apply edge_ok_emb. apply E3; auto. intros ->. contradiction.
Qed.

Lemma emb_valid f : NoDup (node_ids g2) -> its_emb g1 g2 f -> mvalid (rev (combine (node_ids g2) (map f (node_ids g2)))).
Proof.
  intros Hnd He. rewrite combine_map_self, <- map_rev. apply emb_valid_list; auto.
  - apply NoDup_rev. exact Hnd.
  - intros x I. apply in_rev. exact I.
Qed.

Lemma valid_emb m : mvalid m -> NoDup (map fst m) -> (forall u, In u (map fst m) <-> In u (node_ids g2)) -> its_emb g1 g2 (mfun m).
Proof.
  intros Hv Hnd Hdom. destruct (valid_pointwise Hv) as (V1 & V2 & V3).
  assert (Hin : forall u, In u (node_ids g2) -> In (u, mfun m u) m) by (intros u Iu; apply mfun_in; auto; apply Hdom; exact Iu).
  split; [|split].
  - intros u Iu. apply (V1 u (mfun m u)). auto.
  - intros u v Iu Iv E. apply (snd_inj m u v (mfun m u) V2); auto. rewrite E. auto.
  - intros u v Iu Iv Hne. apply edge_ok_emb.
    destruct (in_two_split (u, mfun m u) (v, mfun m v) m (Hin u Iu) (Hin v Iv)) as [(l1 & l2 & l3 & E)|(l1 & l2 & l3 & E)].
    + congruence.
    + eapply V3. exact E.
    + rewrite edge_ok_sym; [eapply V3; exact E | apply adj_sym | apply adj_sym].
Qed.

Lemma ext_any_spec ps : forall acc, ext_any g2 g1 ps acc = true <-> exists m, In m (mextend ps acc).
Proof.
  unfold mextend. induction ps as [|p ps IH]; intros acc; simpl.
  - split; auto. intros _. exists acc. left. reflexivity.
  - rewrite any_spec. split.
    + intros (h & Ih & Hh). destruct (node_match (lbl g1 h) (lbl g2 p)) eqn:En; [|discriminate].
      destruct (ok _ _ _ _ _ _ _ p h acc) eqn:Eo; [|discriminate].
      apply IH in Hh. destruct Hh as (m & Im). exists m. apply in_flat_map. exists h. split; auto. rewrite Eo. exact Im.
    + intros (m & Im). apply in_flat_map in Im. destruct Im as (h & Ih & Im). exists h. split; auto.
      destruct (ok _ _ _ _ _ _ _ p h acc) eqn:Eo; [|destruct Im].
      assert (En : node_match (lbl g1 h) (lbl g2 p) = true).
      { unfold ok in Eo. apply andb_prop in Eo. destruct Eo as [Eo _]. apply andb_prop in Eo. destruct Eo as [Eo _]. exact Eo. }
      rewrite En. apply IH. exists m. exact Im.
Qed.

Theorem ext_any_iff : NoDup (node_ids g2) -> (ext_any g2 g1 (node_ids g2) [] = true <-> exists f, its_emb g1 g2 f).
Proof.
  intros Hnd. rewrite ext_any_spec. split.
  - intros (m & I). exists (mfun m). unfold mextend in I.
    assert (Hv : mvalid m) by (eapply extend_sound; [constructor | exact I]).
    apply extend_shape in I. destruct I as (hs & Hl & E). rewrite app_nil_r in E. subst m.
    assert (Ef : map fst (rev (combine (node_ids g2) hs)) = rev (node_ids g2)) by (rewrite map_rev, map_fst_combine; auto).
    apply valid_emb; auto.
    + rewrite Ef. apply NoDup_rev. exact Hnd.
    + intros u. rewrite Ef. symmetry. apply in_rev.
  - intros (f & He). exists (rev (combine (node_ids g2) (map f (node_ids g2)))).
    rewrite <- (app_nil_r (rev _)). apply extend_complete; [apply map_length|]. rewrite app_nil_r. apply emb_valid; auto.
Qed.
End Bridge.

(** nx.is_isomorphic as modelled = existence of a label-preserving isomorphism *)
Theorem is_isomorphic_iff (g1 g2 : its) : NoDup (node_ids g2) -> (is_isomorphic g1 g2 = true <-> its_isomorphic g1 g2).
Proof.
  intros Hnd. unfold is_isomorphic, its_isomorphic. rewrite !andb_true_iff, !Nat.eqb_eq, (ext_any_iff g1 g2 Hnd). tauto.
Qed.

Lemma lbl_relabel (f : N -> N) (Hinj : forall a b, f a = f b -> a = b) (g : its) n : lbl (relabel f g) (f n) = lbl g n.
Proof. unfold lbl. rewrite label_relabel; auto. Qed.

Lemma nattr_eqb_refl a : nattr_eqb a a = true.
Proof.
  unfold nattr_eqb. rewrite N.eqb_refl, Bool.eqb_reflx, !Z.eqb_refl. simpl.
  induction (a_nb a) as [|x l IH]; simpl; auto. rewrite N.eqb_refl. exact IH.
Qed.
Lemma node_match_refl a : node_match a a = true.
Proof. unfold node_match. rewrite !nattr_eqb_refl. reflexivity. Qed.
Lemma edge_match_refl x : edge_match x x = true.
Proof. unfold edge_match. rewrite !Z.eqb_refl. reflexivity. Qed.

(** every injective renumbering of an ITS is isomorphic to it *)
Theorem relabel_isomorphic (f : N -> N) (Hinj : forall a b, f a = f b -> a = b) (g : its) :
  its_isomorphic (relabel f g) g.
Proof.
  split; [|split].
  - unfold relabel. simpl. apply map_length.
  - unfold relabel. simpl. apply map_length.
  - exists f. split; [|split].
    + intros u Iu. split.
      * rewrite node_ids_relabel. apply in_map. exact Iu.
      * rewrite lbl_relabel by auto. apply node_match_refl.
    + intros u v _ _ E. apply Hinj. exact E.
    + intros u v _ _ _. rewrite adj_relabel by auto. destruct (LGraph.adj g u v); auto. apply edge_match_refl.
Qed.
