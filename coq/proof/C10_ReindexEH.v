(** C10 — proofs: reindex=True together with explicit_hydrogen=True (graphs without implicit hydrogens): the last
    cell of the option matrix of its_to_gml for reaction centres. *)
From Coq Require Import List NArith ZArith Bool Lia.
From SK Require Import lib.LGraph lib.StrJoin model.C10_Model proof.C10_Proof proof.C10_Views proof.C10_Build
  proof.C10_Copy proof.C10_GmlRead proof.C10_GmlWrite proof.C10_Relabel proof.C10_Reindex proof.C10_Hydrogen proof.C10_HRound
  proof.C10_GmlEH.
Import ListNotations.
Local Open Scope Z_scope.

Lemma its_to_gml_rec_reindex_eh c : IOK c ->
  its_to_gml c false true true =
  let m := enum_from 1%N (node_ids c) in
  let sL := nx_relabel m (side_graph c false) in
  let sR := nx_relabel m (side_graph c true) in
  let K := nx_relabel m (h_to_explicit c None false) in
  let ch := find_changed sL sR in
  [(SLeft, side_entries sL ch); (SContext, context_entries K ch true); (SRight, side_entries sR ch)].
Proof.
  intros Hok. unfold its_to_gml. rewrite its_decompose_sides by exact Hok. unfold nx_to_gml.
  rewrite (side_graph_node_ids c false Hok). reflexivity.
Qed.

Theorem gml_roundtrip_reindex_eh_iok c : IOK c -> (forall n a, label c n = Some a -> cval a <= 0) ->
  let ids := node_ids c in
  let f := mapget (enum_from 1%N ids) in
  let I' := gml_to_its (its_to_gml c false true true) in
  (forall k, has_node I' k = true <-> exists n, In n ids /\ k = f n) /\
  (forall n a, label c n = Some a ->
     label I' (f n) = Some (gml_node (f n) (tg_el (tG_of a)) (tg_ch (tG_of a)) (tg_ch (tH_of a)))) /\
  (forall u v, In u ids -> In v ids -> adj I' (f u) (f v) = adj c u v).
Proof.
  intros Hok Hc ids f I'. pose proof (iok_gwf c Hok) as Wc.
  destruct (h_explicit_nohc c Wc Hc) as (Kids & KL & KA & KW). cbv zeta in Kids, KL, KA, KW.
  set (K1 := h_to_explicit c None false) in *.
  (* the relabelled context has the lookups of the relabelled ITS *)
  assert (gwf (RL c K1)) as WK by (apply (RL_gwf c Hok K1 KW Kids)).
  assert (forall k, label (RL c K1) k = label (RL c c) k) as LK.
  { intros k. rewrite (RL_label c Hok K1 k KW Kids), (RL_label c Hok c k Wc eq_refl).
    destruct (finv _ _ k); [apply KL|reflexivity]. }
  assert (forall k l, adj (RL c K1) k l = adj (RL c c) k l) as AK.
  { intros k l. rewrite (RL_adj c Hok K1 k l KW Kids), (RL_adj c Hok c k l Wc eq_refl).
    destruct (finv _ _ k); [|reflexivity]. destruct (finv _ _ l); [apply KA|reflexivity]. }
  unfold I', gml_to_its. rewrite its_to_gml_rec_reindex_eh by exact Hok. cbv zeta. fold K1.
  destruct (gml_pipeline_ctx (RL c c) (RL c (side_graph c false)) (RL c (side_graph c true)) (context_entries (RL c K1) (find_changed (RL c (side_graph c false)) (RL c (side_graph c true))) true)
              (RL_IOK c Hok) (RL_side c Hok false) (RL_side c Hok true)) as (P1 & P2 & P3).
  { apply ctx_like_eh; [apply (RL_IOK c Hok)|exact WK|exact LK|exact AK]. }
  destruct (RL_transfer c Hok _ P1 P2 P3) as (Q1 & Q2 & Q3 & _). auto.
Qed.

Theorem gml_roundtrip_reindex_eh c : its_ok c = true -> hc_free c = true ->
  let f := mapget (enum_from 1%N (node_ids c)) in
  let I' := gml_to_its (its_to_gml c false true true) in
  (forall k, has_node I' k = true <-> exists n, In n (node_ids c) /\ k = f n) /\
  (forall n a, label c n = Some a ->
     label I' (f n) = Some (gml_node (f n) (tg_el (tG_of a)) (tg_ch (tG_of a)) (tg_ch (tH_of a)))) /\
  (forall u v, In u (node_ids c) -> In v (node_ids c) -> adj I' (f u) (f v) = adj c u v).
Proof.
  intros H Hf. apply gml_roundtrip_reindex_eh_iok; [apply its_ok_IOK; exact H|].
  intros n a L. apply assoc_in in L. unfold hc_free in Hf. rewrite forallb_forall in Hf. specialize (Hf _ L). simpl in Hf.
  apply Z.leb_le in Hf. exact Hf.
Qed.

Example gml_roundtrip_reindex_eh_ex :
  its_ok ex_centre_eh' = true /\ hc_free ex_centre_eh' = true /\
  mapget (enum_from 1%N (node_ids ex_centre_eh')) 40%N = 4%N /\
  adj (gml_to_its (its_to_gml ex_centre_eh' false true true)) 1%N 4%N = Some (EA (Some (OP 4 4)) (Some 0)).
Proof. vm_compute. repeat split. Qed.
