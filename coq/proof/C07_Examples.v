(** C07 — non-vacuity examples for clauses (1)-(6) of the property: each theorem instantiated on concrete graphs where its premises
    hold and its conclusion is non-trivial (the defect witnesses of corpus/regress/C07); the example graphs and engines the other
    example files use (C07_EntryEx, C07_Final2, C07_More, C07_MCCS, C07_QPF).  Stdlib lists. *)
From Coq Require Import List NArith Bool Lia.
From SK Require Import lib.Tok lib.LGraph lib.C01_GraphLemmas model.C07_Model
  proof.C07_Spec proof.C07_History proof.C07_Main proof.C07_Relabel proof.C07_Final.
Import ListNotations.

(** a boolean well-formedness checker, sound for [gwf] *)
Fixpoint nodupb (l : list N) : bool := match l with [] => true | x :: r => negb (mem x r) && nodupb r end.
Fixpoint uniqb (es : list (N * N * attrs)) : bool :=
  match es with
  | [] => true
  | (a, b, _) :: r => match find_edge a b r with None => uniqb r | Some _ => false end
  end.
Definition gwfb (g : graph) : bool :=
  nodupb (node_ids g) &&
  forallb (fun e : N * N * attrs => let '(a, b, _) := e in mem a (node_ids g) && mem b (node_ids g) && negb (N.eqb a b)) (gedges g) &&
  uniqb (gedges g).

Lemma nodupb_sound l : nodupb l = true -> NoDup l.
Proof.
  induction l as [|x r IH]; simpl; [constructor|]. intros E. apply andb_prop in E. destruct E as (E1 & E2).
  constructor; auto. intros I. apply mem_spec in I. rewrite I in E1. discriminate.
Qed.

Lemma uniqb_sound es : uniqb es = true -> simple es.
Proof.
  induction es as [|[[a b] x] r IH]; simpl; [constructor|].
  destruct (find_edge a b r) eqn:F; [discriminate|]. intros U. constructor; auto.
Qed.

Lemma gwfb_sound g : gwfb g = true -> gwf g.
Proof.
  unfold gwfb. intros E. apply andb_prop in E. destruct E as (E & E3). apply andb_prop in E. destruct E as (E1 & E2).
  apply wf_intro; [apply nodupb_sound; exact E1 | | apply uniqb_sound; exact E3].
  intros a b x I. rewrite forallb_forall in E2. specialize (E2 _ I). simpl in E2.
  apply andb_prop in E2. destruct E2 as (E2 & Hn). apply andb_prop in E2. destruct E2 as (Ia & Ib).
  apply mem_spec in Ia. apply mem_spec in Ib. apply negb_true_iff, N.eqb_neq in Hn. auto.
Qed.

Ltac wf_small := apply gwfb_sound; vm_compute; reflexivity.

(* keys: 1 element, 2 charge, 4 order; values: C = 1, O = 2, charge 0 = 3, charge -1 = 4, order 1 = 5 *)
Definition aC : attrs := [(1, 1); (2, 3)]%N.
Definition aO : attrs := [(1, 2); (2, 3)]%N.
Definition aOm : attrs := [(1, 2); (2, 4)]%N.
Definition b1 : attrs := [(4, 5)]%N.
Definition gCO : graph := LG [(1, aC); (2, aO)]%N [(1, 2, b1)]%N.           (* C-O, ids 1,2 *)
Definition gOC : graph := LG [(7, aO); (5, aC)]%N [(7, 5, b1)]%N.           (* O-C, ids 7,5: a relabelled copy *)
Definition gCOm : graph := LG [(7, aC); (5, aOm)]%N [(7, 5, b1)]%N.         (* C-[O-] *)
Definition gCOC : graph := LG [(5, aC); (6, aO); (7, aC)]%N [(5, 6, b1); (6, 7, b1)]%N.   (* C-O-C, ids 5,6,7 *)
Definition eFull : engine := Eng [1; 2]%N [4]%N true None.      (* element + charge, order; WL filter on *)
Definition eElem : engine := Eng [1]%N [4]%N true None.         (* element only; WL filter on *)

Lemma wf_gCO : gwf gCO. Proof. wf_small. Qed.
Lemma wf_gOC : gwf gOC. Proof. wf_small. Qed.
Lemma wf_gCOm : gwf gCOm. Proof. wf_small. Qed.
Lemma wf_gCOC : gwf gCOC. Proof. wf_small. Qed.

Definition gsA : list graph := [gCO; gOC; gCOm; gCOC].
(** (1) a true and a false verdict, and the bijection the theorem yields *)
Example ex_iso_true : exists f, iso_map (nm_eng eFull) (em_eng eFull) gCO gOC f.
Proof.
  apply (iso_verdict has_mono has_mono_contract gsA eFull 0 1 [] (cache_inv_nil gsA) wf_gCO wf_gOC).
  vm_compute. reflexivity.
Qed.
Example ex_iso_false : ~ exists f, iso_map (nm_eng eFull) (em_eng eFull) gCO gCOm f.
Proof.
  intros C. apply (iso_verdict has_mono has_mono_contract gsA eFull 0 2 [] (cache_inv_nil gsA) wf_gCO wf_gCOm) in C.
  vm_compute in C. discriminate.
Qed.

(** (2a) renaming the nodes of the first graph by +10: premises hold, both verdicts are [true] *)
Definition r10 (x : N) : N := (x + 10)%N.
Definition gsB : list graph := [grelabel r10 gCO; gOC; gCOm; gCOC].
Example ex_relabel :
  fst (isomorphic has_mono eFull 0 (gnth gsB 0) 1 (gnth gsB 1) []) = fst (isomorphic has_mono eFull 0 (gnth gsA 0) 1 (gnth gsA 1) [])
  /\ fst (isomorphic has_mono eFull 0 (gnth gsA 0) 1 (gnth gsA 1) []) = true
  /\ node_ids (gnth gsB 0) = [11; 12]%N.
Proof.
  split; [|split; vm_compute; reflexivity].
  apply (relabel_invariant has_mono has_mono_contract eFull r10 gsA gsB 0 1 [] [] (cache_inv_nil gsA) (cache_inv_nil gsB)
           wf_gCO wf_gOC).
  left. split; [reflexivity|]. split; [|reflexivity]. intros a b _ _. unfold r10. lia.
Qed.

(** (2b) hcount absent everywhere: hc_all 0 *)
Lemma hc0_gCO : hc_all 0%N gCO. Proof. intros u [<-|[<-|[]]]; reflexivity. Qed.
Lemma hc0_gOC : hc_all 0%N gOC. Proof. intros u [<-|[<-|[]]]; reflexivity. Qed.
Example ex_symmetric :
  fst (isomorphic has_mono eFull 0 (gnth gsA 0) 1 (gnth gsA 1) []) = fst (isomorphic has_mono eFull 1 (gnth gsA 1) 0 (gnth gsA 0) []).
Proof.
  apply (symmetric has_mono has_mono_contract eFull gsA 0 1 [] [] 0%N (cache_inv_nil gsA) (cache_inv_nil gsA)
           wf_gCO wf_gOC hc0_gCO hc0_gOC).
Qed.
(** ... and not symmetric in general: host hcount 1 >= pattern hcount 0 only one way round *)
Definition gH1 : graph := LG [(1, [(0, 1); (1, 1)])]%N [].
Definition gH0 : graph := LG [(3, [(0, 0); (1, 1)])]%N [].
Example ex_asymmetric_hcount :
  fst (isomorphic has_mono eElem 0 gH1 1 gH0 []) = true /\ fst (isomorphic has_mono eElem 1 gH0 0 gH1 []) = false.
Proof. split; vm_compute; reflexivity. Qed.

(** (3) the former edge-filter defect: child C-O (ids 1,2) in parent C-O-C (ids 5,6,7), filter on *)
Definition namesEC : list (N * N) := [(1, 9); (2, 3)]%N.
Example ex_subgraph_bool : contained true (nm_subc CEq namesEC) (em_subc CEq (Some 4%N)) gCOC gCO /\
                           ~ contained false (nm_subc CEq namesEC) (em_subc CEq (Some 4%N)) gCO gCOC.
Proof.
  split.
  - apply (sub_iso_spec has_mono has_mono_contract true true CEq CEq namesEC (Some 4%N) gCO gCOC wf_gCO wf_gCOC). vm_compute. reflexivity.
  - intros C. apply (sub_iso_spec has_mono has_mono_contract true false CEq CEq namesEC (Some 4%N) gCOC gCO wf_gCOC wf_gCO) in C.
    vm_compute in C. discriminate.
Qed.

(** (4) the former argument-order defect: a strictly smaller pattern has 2 embeddings, both valid *)
Definition mapsEx : list mapping := fst (get_mappings has_mono (monos_g true) eFull 3 (gnth gsA 3) 0 (gnth gsA 0) []).
Example ex_embeddings_count : length mapsEx = 2%nat.
Proof. vm_compute. reflexivity. Qed.
Example ex_embeddings : (forall m, In m mapsEx -> mapping_valid true (nm_eng eFull) (em_eng eFull) gCOC gCO m) /\ mapsEx <> [].
Proof.
  destruct (embeddings has_mono (monos_g true) has_mono_contract monos_g_contract gsA eFull 3 0 [] (cache_inv_nil gsA)
              wf_gCOC wf_gCO) as (V & _).
  split; [exact V|]. vm_compute. discriminate.
Qed.

(** (5) the WL filter really rejects (C-O vs C-[O-] under element+charge) and agrees with the unfiltered engine *)
Example ex_filter_rejects : fst (pre_check eFull 0 (gnth gsA 0) 2 (gnth gsA 2) []) = false
                            /\ fst (pre_check (set_wl eFull false) 0 (gnth gsA 0) 2 (gnth gsA 2) []) = true.
Proof. split; vm_compute; reflexivity. Qed.
Example ex_filter_transparent :
  fst (isomorphic has_mono (set_wl eFull false) 0 (gnth gsA 0) 2 (gnth gsA 2) []) = fst (isomorphic has_mono eFull 0 (gnth gsA 0) 2 (gnth gsA 2) []).
Proof.
  apply (filters_transparent has_mono (monos_g true) has_mono_contract monos_g_contract); auto using cache_inv_nil.
  - exact wf_gCO.
  - exact wf_gCOm.
Qed.
Example ex_filter_necessary : fst (pre_check eFull 3 (gnth gsA 3) 0 (gnth gsA 0) []) = true.
Proof.
  apply filters_necessary; [apply cache_inv_nil | exact wf_gCOC | exact wf_gCO |].
  apply (has_mono_contract true _ _ gCOC gCO wf_gCOC wf_gCO). vm_compute. reflexivity.
Qed.

(** (6) the former cache defect: a charge-aware query, then an element-only query on the same two graph objects.
    The second query hits the cache for neither graph (different node_attrs key) and answers like a fresh engine. *)
Definition histQ : list query := [QIso 0 0 2; QIso 1 0 2; QMaps 1 0 2; QPre 1 0 2; QIso 0 0 2].
Definition histRun : list tok := run_from has_mono (monos_g true) gsA [eFull; eElem] histQ [].
(** (each answer of an isomorphic query carries its intermediate values: host index, pattern index, _pre_check's answer, deciding method) *)
Example ex_history_answers : firstn 2 histRun = [L [tbool false; tlist tN [2; 0; 0; 0]%N]; L [tbool true; tlist tN [2; 0; 1; 1]%N]].
Proof. vm_compute. reflexivity. Qed.
Example ex_history : histRun = map (fun q => fst (step has_mono (monos_g true) gsA [eFull; eElem] q [])) histQ.
Proof. apply no_history, cache_inv_nil. Qed.
Definition cacheAfter : cache := snd (step has_mono (monos_g true) gsA [eFull; eElem] (QIso 1 0 2)
                                       (snd (step has_mono (monos_g true) gsA [eFull; eElem] (QIso 0 0 2) []))).
Example ex_cache_keys : map fst cacheAfter = [(0%nat, [1%N]); (2%nat, [1%N]); (0%nat, [1; 2]%N); (2%nat, [1; 2]%N)].
Proof. vm_compute. reflexivity. Qed.
