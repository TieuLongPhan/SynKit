(** C12 -- proofs about the model of MCSMatcher (model/C12_Model.v): find_common_subgraph / get_mappings
    (orientation swap, wildcard pruning, the three directions) and the MTG copy, on top of proof/C12_Search.v. *)
From Coq Require Import List NArith ZArith Bool Arith Lia Permutation.
From SK Require Import lib.LGraph model.C12_Model proof.C12_Search.
Import ListNotations.

(* ------------------------------------------------------------------ inversion of mappings *)
Lemma invert_involutive m : invert_mapping (invert_mapping m) = m.
Proof.
  unfold invert_mapping. rewrite map_map. simpl.
  induction m as [|[a b] r IH]; simpl; [reflexivity|]. now rewrite IH.
Qed.

Lemma in_invert a b m : In (a, b) (invert_mapping m) <-> In (b, a) m.
Proof.
  unfold invert_mapping. rewrite in_map_iff. split.
  - intros ([x y] & E & I). simpl in E. inversion E; subst. exact I.
  - intros I. exists (b, a). split; [reflexivity|exact I].
Qed.

Lemma map_fst_invert m : map fst (invert_mapping m) = map snd m.
Proof. unfold invert_mapping. rewrite map_map. reflexivity. Qed.
Lemma map_snd_invert m : map snd (invert_mapping m) = map fst m.
Proof. unfold invert_mapping. rewrite map_map. reflexivity. Qed.
Lemma invert_length m : length (invert_mapping m) = length m.
Proof. apply map_length. Qed.

Lemma map_invert_involutive (l : list mapping) : map invert_mapping (map invert_mapping l) = l.
Proof. rewrite map_map. rewrite <- (map_id l) at 2. apply map_ext. apply invert_involutive. Qed.

(* ------------------------------------------------------------------ the matchers are symmetric *)
Lemma attrs_match_sym defs : forall h p, attrs_match defs h p = attrs_match defs p h.
Proof.
  induction defs as [|d ds IH]; intros [|a hs] [|b ps]; simpl; try reflexivity.
  now rewrite N.eqb_sym, IH.
Qed.

Lemma node_match_sym defs h p : node_match defs h p = node_match defs p h.
Proof. destruct h as [[? ?]|], p as [[? ?]|]; simpl; auto using attrs_match_sym. Qed.

Lemma edge_match_sym : forall h p, edge_match h p = edge_match p h.
Proof.
  induction h as [|hv hs IH]; intros [|pv ps]; simpl; try reflexivity.
  destruct hv, pv; try reflexivity; [now rewrite Z.eqb_sym, IH|apply IH].
Qed.

Lemma edge_match_mtg_sym h p : edge_match_mtg h p = edge_match_mtg p h.
Proof. destruct h as [|[a|] ?], p as [|[b|] ?]; simpl; try reflexivity. apply Z.eqb_sym. Qed.

(* ------------------------------------------------------------------ common_induced is symmetric under inversion *)
Section Invert.
Variable nm : option nattr -> option nattr -> bool.
Variable em : eattr -> eattr -> bool.
Hypothesis nm_sym : forall a b, nm a b = nm b a.
Hypothesis em_sym : forall a b, em a b = em b a.

Lemma ci_invert ga gb m : common_induced nm em ga gb m -> common_induced nm em gb ga (invert_mapping m).
Proof.
  intros (H1 & H2 & H3 & H4). split; [now rewrite map_fst_invert|]. split; [now rewrite map_snd_invert|]. split.
  - intros p h I. apply (proj1 (in_invert _ _ _)) in I. destruct (H3 h p I) as (Ha & Hb & Hn). rewrite nm_sym. auto.
  - intros p h p' h' I I' Hp. apply (proj1 (in_invert _ _ _)) in I. apply (proj1 (in_invert _ _ _)) in I'.
    assert (Hh : h <> h').
    { intros ->. apply Hp. pose proof (NoDup_map_fst_eq m (h', p) (h', p') H1 I I' eq_refl) as E. now inversion E. }
    specialize (H4 h p h' p' I I' Hh).
    destruct (LGraph.adj ga h h'), (LGraph.adj gb p p'); auto. now rewrite em_sym.
Qed.

Lemma perm_invert m m' : Permutation (invert_mapping m) m' -> Permutation m (invert_mapping m').
Proof.
  intros P. rewrite <- (invert_involutive m). unfold invert_mapping at 1 3. now apply Permutation_map.
Qed.

Lemma invert_sound ga gb maps (Q : nat -> Prop) : (forall m, In m maps -> common_induced nm em ga gb m /\ Q (length m)) ->
  forall m, In m (map invert_mapping maps) -> common_induced nm em gb ga m /\ Q (length m).
Proof.
  intros H m I. apply in_map_iff in I. destruct I as (m0 & <- & I0). destruct (H m0 I0) as (Hc & Hl).
  split; [now apply ci_invert|now rewrite invert_length].
Qed.

Lemma MaxSpec_invert ga gb maps last : MaxSpec nm em ga gb maps last -> MaxSpec nm em gb ga (map invert_mapping maps) last.
Proof.
  intros (S1 & S2 & S3 & S4). split; [exact (invert_sound ga gb maps (fun n => n = last) S1)|split; [|split]].
  - intros m Hm. rewrite <- invert_length. apply S2. now apply ci_invert.
  - intros m Hm Hl H1. destruct (S3 (invert_mapping m) (ci_invert _ _ _ Hm)) as (m' & I' & P); [now rewrite invert_length|exact H1|].
    exists (invert_mapping m'). split; [now apply in_map|now apply perm_invert].
  - rewrite <- S4. split; [intros E; now apply map_eq_nil in E|intros ->; reflexivity].
Qed.

Lemma AllSpec_invert ga gb maps : AllSpec nm em ga gb maps -> AllSpec nm em gb ga (map invert_mapping maps).
Proof.
  intros (S1 & S2). split; [exact (invert_sound ga gb maps (fun n => 1 <= n) S1)|].
  intros m Hm Hl. destruct (S2 (invert_mapping m) (ci_invert _ _ _ Hm)) as (m' & I' & P); [now rewrite invert_length|].
  exists (invert_mapping m'). split; [now apply in_map|now apply perm_invert].
Qed.

End Invert.

(** a result exists iff some pair of atoms matches *)
Section Nonempty.
Variable nm : option nattr -> option nattr -> bool.
Variable em : eattr -> eattr -> bool.

Lemma ci_single ga gb p h : In p (node_ids ga) -> In h (node_ids gb) -> nm (label gb h) (label ga p) = true ->
  common_induced nm em ga gb [(p, h)].
Proof.
  intros Hp Hh Hn. split; [repeat constructor; intros []|]. split; [repeat constructor; intros []|]. split.
  - intros p0 h0 [E|[]]. inversion E; subst. auto.
  - intros p0 h0 p1 h1 [E|[]] [E'|[]] Hne. inversion E; inversion E'; subst. now elim Hne.
Qed.

Lemma ci_pair_matches ga gb m : common_induced nm em ga gb m -> 1 <= length m ->
  exists p h, In p (node_ids ga) /\ In h (node_ids gb) /\ nm (label gb h) (label ga p) = true.
Proof.
  intros (_ & _ & H3 & _) Hl. destruct m as [|[p h] r]; [simpl in Hl; lia|].
  exists p, h. apply H3. now left.
Qed.

Lemma MaxSpec_valid ga gb maps last : MaxSpec nm em ga gb maps last ->
  forall m, In m maps -> common_induced nm em ga gb m /\ 1 <= length m.
Proof.
  intros (S1 & _ & _ & S4) m I. destruct (S1 m I) as (Hc & Hl). split; [exact Hc|].
  destruct last; [|lia]. rewrite (proj2 S4 eq_refl) in I. destruct I.
Qed.

Lemma MaxSpec_nonempty ga gb maps last : MaxSpec nm em ga gb maps last ->
  (maps <> [] <-> exists p h, In p (node_ids ga) /\ In h (node_ids gb) /\ nm (label gb h) (label ga p) = true).
Proof.
  intros M. split.
  - intros Hne. destruct maps as [|m r]; [now elim Hne|].
    destruct (MaxSpec_valid _ _ _ _ M m (or_introl eq_refl)) as (Hc & Hl). exact (ci_pair_matches ga gb m Hc Hl).
  - intros (p & h & Hp & Hh & Hn) E. destruct M as (_ & S2 & _ & S4). apply S4 in E.
    pose proof (S2 _ (ci_single ga gb p h Hp Hh Hn)) as Hl. simpl in Hl. lia.
Qed.

Lemma AllSpec_nonempty ga gb maps : AllSpec nm em ga gb maps ->
  (maps <> [] <-> exists p h, In p (node_ids ga) /\ In h (node_ids gb) /\ nm (label gb h) (label ga p) = true).
Proof.
  intros (S1 & S2). split.
  - intros Hne. destruct maps as [|m r]; [now elim Hne|]. destruct (S1 m (or_introl eq_refl)) as (Hc & Hl).
    exact (ci_pair_matches ga gb m Hc Hl).
  - intros (p & h & Hp & Hh & Hn) E.
    destruct (S2 _ (ci_single ga gb p h Hp Hh Hn) (le_n 1)) as (m' & I & _). rewrite E in I. destruct I.
Qed.

End Nonempty.

Lemma NoDup_map_fst_filter {V} (f : N * V -> bool) (l : list (N * V)) :
  NoDup (map fst l) -> NoDup (map fst (filter f l)).
Proof.
  induction l as [|a r IH]; simpl; intros H; [constructor|].
  inversion H as [|? ? Hn Hr]; subst. destruct (f a); simpl; [|auto].
  constructor; [|auto]. intros I. apply Hn. apply in_map_iff in I. destruct I as (x & E & Ix).
  apply filter_In in Ix. rewrite <- E. apply in_map. tauto.
Qed.

Lemma induced_nodup (g : graph) keep : NoDup (node_ids g) -> NoDup (node_ids (induced_sub g keep)).
Proof. apply NoDup_map_fst_filter. Qed.

Lemma prune_nodup prune wc (g : graph) : NoDup (node_ids g) -> NoDup (node_ids (prune_graph prune wc g)).
Proof. unfold prune_graph. destruct prune; [apply induced_nodup|auto]. Qed.

(* ------------------------------------------------------------------ _search_subgraphs, either mode, as the predicates *)
Section Generic.
Variable nm : option nattr -> option nattr -> bool.
Variable em : eattr -> eattr -> bool.

Lemma search_MaxSpec pattern host : NoDup (node_ids pattern) ->
  MaxSpec nm em pattern host (fst (fst (search_subgraphs nm em pattern host true)))
          (snd (fst (search_subgraphs nm em pattern host true))).
Proof.
  intros Hp. destruct (search_subgraphs nm em pattern host true) as [[maps last] tried] eqn:E.
  exact (search_mcs_spec nm em pattern host Hp maps last tried E).
Qed.

Lemma search_AllSpec pattern host : NoDup (node_ids pattern) ->
  AllSpec nm em pattern host (fst (fst (search_subgraphs nm em pattern host false))).
Proof.
  intros Hp. destruct (search_subgraphs nm em pattern host false) as [[maps last] tried] eqn:E.
  exact (search_all_spec nm em pattern host Hp maps last tried E).
Qed.

Lemma search_sound pattern host mcs : NoDup (node_ids pattern) ->
  forall m, In m (fst (fst (search_subgraphs nm em pattern host mcs))) -> common_induced nm em pattern host m /\ 1 <= length m.
Proof.
  intros Hp. destruct mcs; [exact (MaxSpec_valid nm em _ _ _ _ (search_MaxSpec pattern host Hp))|exact (proj1 (search_AllSpec pattern host Hp))].
Qed.

End Generic.

(* ------------------------------------------------------------------ find_common_subgraph / get_mappings *)
Lemma directions_inverse (r : result) :
  get_mappings G2toG1 r = map invert_mapping (get_mappings G1toG2 r) /\
  get_mappings G1toG2 r = map invert_mapping (get_mappings G2toG1 r).
Proof.
  unfold get_mappings. destruct (r_pattern_is_g1 r); split; try reflexivity; now rewrite map_invert_involutive.
Qed.

Lemma pattern_to_host_direction (r : result) :
  get_mappings PatternToHost r = get_mappings (if r_pattern_is_g1 r then G1toG2 else G2toG1) r.
Proof. unfold get_mappings. now destruct (r_pattern_is_g1 r). Qed.

Lemma fcs_maps_search defs prune wc (g1 g2 : graph) mcs : exists pattern host,
  r_maps (find_common_subgraph defs prune wc g1 g2 mcs) =
  fst (fst (search_subgraphs (node_match defs) edge_match pattern host mcs)).
Proof.
  unfold find_common_subgraph. destruct (prepare_orientation _ _) as [[pattern host] p1]. exists pattern, host.
  now destruct (search_subgraphs _ _ pattern host mcs) as [[maps last] tried].
Qed.

Section Matcher.
Variable defs : list N.
Variable prune : bool.
Variable wc : N.
Variables g1 g2 : graph.
Hypothesis g1_nodup : NoDup (node_ids g1).
Hypothesis g2_nodup : NoDup (node_ids g2).

Notation g1u := (prune_graph prune wc g1).
Notation g2u := (prune_graph prune wc g2).
Notation nm := (node_match defs).

(** whatever holds of every search result (as a relation between pattern, host, mappings and size) and survives the
    exchange of the two graphs together with the inversion of the mappings, holds of the two direction requests *)
Theorem fcs_oriented (P : graph -> graph -> list mapping -> nat -> Prop) mcs :
  (forall ga gb maps last, P ga gb maps last -> P gb ga (map invert_mapping maps) last) ->
  (forall pattern host, NoDup (node_ids pattern) ->
     P pattern host (fst (fst (search_subgraphs nm edge_match pattern host mcs)))
       (snd (fst (search_subgraphs nm edge_match pattern host mcs)))) ->
  P g1u g2u (get_mappings G1toG2 (find_common_subgraph defs prune wc g1 g2 mcs))
    (r_last (find_common_subgraph defs prune wc g1 g2 mcs)) /\
  P g2u g1u (get_mappings G2toG1 (find_common_subgraph defs prune wc g1 g2 mcs))
    (r_last (find_common_subgraph defs prune wc g1 g2 mcs)).
Proof.
  intros Hinv Hs. unfold find_common_subgraph, prepare_orientation.
  destruct (n_nodes g1u <=? n_nodes g2u).
  - pose proof (Hs g1u g2u (prune_nodup prune wc g1 g1_nodup)) as S.
    destruct (search_subgraphs nm edge_match g1u g2u mcs) as [[maps last] tried]. split; [exact S|exact (Hinv _ _ _ _ S)].
  - pose proof (Hs g2u g1u (prune_nodup prune wc g2 g2_nodup)) as S.
    destruct (search_subgraphs nm edge_match g2u g1u mcs) as [[maps last] tried]. split; [exact (Hinv _ _ _ _ S)|exact S].
Qed.

Theorem fcs_maximum :
  MaxSpec nm edge_match g1u g2u (get_mappings G1toG2 (find_common_subgraph defs prune wc g1 g2 true))
          (r_last (find_common_subgraph defs prune wc g1 g2 true)) /\
  MaxSpec nm edge_match g2u g1u (get_mappings G2toG1 (find_common_subgraph defs prune wc g1 g2 true))
          (r_last (find_common_subgraph defs prune wc g1 g2 true)).
Proof.
  apply (fcs_oriented (MaxSpec nm edge_match)); [|apply search_MaxSpec].
  intros ga gb maps last. apply MaxSpec_invert; [apply node_match_sym|apply edge_match_sym].
Qed.

Theorem fcs_all :
  AllSpec nm edge_match g1u g2u (get_mappings G1toG2 (find_common_subgraph defs prune wc g1 g2 false)) /\
  AllSpec nm edge_match g2u g1u (get_mappings G2toG1 (find_common_subgraph defs prune wc g1 g2 false)).
Proof.
  apply (fcs_oriented (fun ga gb maps _ => AllSpec nm edge_match ga gb maps)); [|apply search_AllSpec].
  intros ga gb maps _. apply AllSpec_invert; [apply node_match_sym|apply edge_match_sym].
Qed.

Theorem fcs_valid mcs m :
  (In m (get_mappings G1toG2 (find_common_subgraph defs prune wc g1 g2 mcs)) ->
     common_induced nm edge_match g1u g2u m /\ 1 <= length m) /\
  (In m (get_mappings G2toG1 (find_common_subgraph defs prune wc g1 g2 mcs)) ->
     common_induced nm edge_match g2u g1u m /\ 1 <= length m) /\
  (In m (get_mappings PatternToHost (find_common_subgraph defs prune wc g1 g2 mcs)) ->
     if r_pattern_is_g1 (find_common_subgraph defs prune wc g1 g2 mcs)
     then common_induced nm edge_match g1u g2u m else common_induced nm edge_match g2u g1u m).
Proof.
  destruct (fcs_oriented (fun ga gb maps _ => forall m, In m maps -> common_induced nm edge_match ga gb m /\ 1 <= length m) mcs)
    as (V12 & V21).
  - intros ga gb maps _. exact (invert_sound nm edge_match (node_match_sym defs) edge_match_sym ga gb maps (fun n => 1 <= n)).
  - intros pattern host. apply search_sound.
  - split; [exact (V12 m)|]. split; [exact (V21 m)|].
    rewrite pattern_to_host_direction. destruct (r_pattern_is_g1 _); intros I; [now apply V12|now apply V21].
Qed.

Theorem fcs_nonempty_iff mcs :
  get_mappings G1toG2 (find_common_subgraph defs prune wc g1 g2 mcs) <> [] <->
  exists p h, In p (node_ids g1u) /\ In h (node_ids g2u) /\ nm (label g2u h) (label g1u p) = true.
Proof.
  destruct mcs.
  - exact (MaxSpec_nonempty nm edge_match _ _ _ _ (proj1 fcs_maximum)).
  - exact (AllSpec_nonempty nm edge_match _ _ _ (proj1 fcs_all)).
Qed.

End Matcher.

(** the orientation swap: with graphs of different size, calling the matcher with the arguments exchanged runs the
    very same search, and the two direction requests exchange their answers *)
Theorem orientation_swap defs prune wc (g1 g2 : graph) mcs :
  n_nodes (prune_graph prune wc g1) <> n_nodes (prune_graph prune wc g2) ->
  get_mappings G1toG2 (find_common_subgraph defs prune wc g1 g2 mcs) =
  get_mappings G2toG1 (find_common_subgraph defs prune wc g2 g1 mcs) /\
  r_last (find_common_subgraph defs prune wc g1 g2 mcs) = r_last (find_common_subgraph defs prune wc g2 g1 mcs) /\
  r_pattern_is_g1 (find_common_subgraph defs prune wc g1 g2 mcs) =
  negb (r_pattern_is_g1 (find_common_subgraph defs prune wc g2 g1 mcs)).
Proof.
  intros Hne. unfold find_common_subgraph, prepare_orientation.
  destruct (Nat.leb_spec (n_nodes (prune_graph prune wc g1)) (n_nodes (prune_graph prune wc g2))) as [L1|L1],
           (Nat.leb_spec (n_nodes (prune_graph prune wc g2)) (n_nodes (prune_graph prune wc g1))) as [L2|L2].
  - elim Hne. now apply Nat.le_antisymm.
  - destruct (search_subgraphs _ _ (prune_graph prune wc g1) (prune_graph prune wc g2) mcs) as [[maps last] tried]. repeat split.
  - destruct (search_subgraphs _ _ (prune_graph prune wc g2) (prune_graph prune wc g1) mcs) as [[maps last] tried]. repeat split.
  - elim (Nat.lt_asymm _ _ L1 L2).
Qed.

(** the MTG copy (no orientation swap, no pruning, its own edge matcher) *)
Theorem mtg_spec defs (g1 g2 : graph) : NoDup (node_ids g1) -> NoDup (node_ids g2) ->
  MaxSpec (node_match defs) edge_match_mtg g1 g2
          (fst (fst (find_common_subgraph_mtg defs g1 g2 true))) (snd (fst (find_common_subgraph_mtg defs g1 g2 true))) /\
  AllSpec (node_match defs) edge_match_mtg g1 g2 (fst (fst (find_common_subgraph_mtg defs g1 g2 false))).
Proof. intros N1 _. split; [now apply search_MaxSpec|now apply search_AllSpec]. Qed.
