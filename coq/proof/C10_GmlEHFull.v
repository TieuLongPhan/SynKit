(** C10 — proofs: explicit_hydrogen=True exports of an ITS WITH implicit hydrogens.  The context section is written from
    h_to_explicit(context): every implicit hydrogen becomes a context node "H" with a context edge "-" to its atom, the reader
    copies both into left and right, and the ITS read back is the ITS with those hydrogens explicit:
        gml_to_its (its_to_gml c, explicit_hydrogen=True)  reads as  normalize_edge_orders (h_to_explicit c)
    on atoms, charges and (before, after) bond dictionaries. *)
From Coq Require Import String List NArith ZArith Bool Lia.
From SK Require Import lib.LGraph lib.StrJoin model.C10_Model model.C10_Rxn proof.C10_Proof proof.C10_Views proof.C10_Build
  proof.C10_Copy proof.C10_GmlRead proof.C10_GmlWrite proof.C10_Hydrogen proof.C10_HRound proof.C10_GmlEH proof.C10_HRoundIts.
Import ListNotations.
Local Open Scope Z_scope.

(** * _synchronize_nodes_and_edges in general: context edges missing from the side are added *)
Definition sstep (acc : gr) (e : N * N * eatt) : gr :=
  let '(u, v, x) := e in if has_edge acc u v then acc else add_edge acc u v x.
Lemma sync_side_sstep (ctx side : gr) :
  sync_side ctx side = fold_left sstep (edges_iter ctx) (fold_left (nstep snd) (gnodes ctx) side).
Proof. reflexivity. Qed.

Lemma sstep_gwf es : forall s : gr, gwf s -> gwf (fold_left sstep es s).
Proof.
  induction es as [|[[u v] x] r IH]; intros s W; [exact W|]. cbn [fold_left]. apply IH. unfold sstep.
  destruct (has_edge s u v); [exact W|apply gwf_add_edge, W].
Qed.

Theorem sync_side_lookups (ctx side : gr) : gwfb ctx = true ->
  (forall u v, adj (sync_side ctx side) u v = match adj side u v with Some y => Some y | None => adj ctx u v end) /\
  (forall n, label (sync_side ctx side) n =
             match label ctx n with
             | Some a => Some (match label side n with Some old => na_update a old | None => a end)
             | None => label side n
             end).
Proof.
  intros H. pose proof (gwfb_gwf ctx H) as W. split; [intros u v; apply sync_adj_gen, W|intros n; apply sync_label_gen, W].
Qed.

(** * maps on edge attributes keep well-formedness *)
Lemma find_edge_emap F u v es : find_edge u v (map (emapf F) es) = option_map F (find_edge u v es).
Proof.
  induction es as [|[[a b] x] r IH]; [reflexivity|]. simpl map. rewrite !find_edge_cons, IH. destruct (pair_eqb a b u v); reflexivity.
Qed.
Lemma gwf_emap F (G : gr) : gwf G -> gwf (emap F G).
Proof.
  intros [Hnd Huq Hcl]. split.
  - exact Hnd.
  - unfold emap. simpl. induction (gedges G) as [|[[a b] x] r IH]; [reflexivity|]. simpl in *.
    rewrite find_edge_emap. destruct (find_edge a b r); [discriminate|]. simpl. apply IH. exact Huq.
  - intros a b x Hin. unfold emap in Hin. simpl in Hin. apply in_map_iff in Hin. destruct Hin as ([[a' b'] x'] & E & Hin).
    simpl in E. inversion E; subst. apply (Hcl a b x' Hin).
Qed.

(** * what [upd] (h_to_explicit on one atom, its=False) keeps *)
Lemma node_label_upd a : node_label (upd a) = node_label a.
Proof. unfold upd. destruct (0 <? cval a); reflexivity. Qed.
Lemma node_okP_upd a : node_okP a -> node_okP (upd a).
Proof.
  unfold upd. destruct (0 <? cval a); [|auto]. intros (e & ar & h & q & ar' & h' & q' & Ht & E1 & E2 & He).
  exists e, ar, (h - cval a), q, ar', h', q'. unfold dec_h. simpl. rewrite Ht. simpl. auto.
Qed.
Lemma tG_upd a : tg_el (tG_of (upd a)) = tg_el (tG_of a) /\ tg_ch (tG_of (upd a)) = tg_ch (tG_of a) /\ tH_of (upd a) = tH_of a.
Proof.
  unfold upd. destruct (0 <? cval a); [|auto]. unfold dec_h, tG_of, tH_of. simpl.
  destruct (a_tgh a) as [[[[[e ar] h] q] t2]|]; simpl; auto.
Qed.

Section Full.
Variable c : gr.
Hypothesis Hok : IOK c.
Variables sL sR : gr.
Hypothesis SL : side_like c false sL.
Hypothesis SR : side_like c true sR.
Variable K : gr.
Variable mx : N.
Variable P : list (N * N).
Hypothesis IE : EInv c K mx P.
Hypothesis LE : forall n a, label c n = Some a -> label K n = Some (upd a).
Hypothesis HP : P_ok c P.
Let W := iok_gwf c Hok.
Let WK := ei_wf _ _ _ _ IE.
Let ch := find_changed sL sR.
Let B := context_entries K ch true.
Let E := normalize_edge_orders K.

Lemma K_label_new h m : In (h, m) P -> label K h = Some H_att /\ label c h = None /\ In m (node_ids c).
Proof.
  intros Hin. destruct (ei_h _ _ _ _ IE h m Hin) as [L M]. split; [exact L|split; [|exact M]].
  destruct (proj2 HP h m Hin) as [Hh _]. apply has_node_false, not_true_is_false. intros H. apply has_node_in in H. contradiction.
Qed.
Lemma K_label_none n : label c n = None -> ~ In n (map fst P) -> label K n = None.
Proof.
  intros L Hn. apply has_node_false, not_true_is_false. intros H. apply has_node_in in H. rewrite (ei_ids _ _ _ _ IE) in H.
  apply in_app_iff in H. destruct H as [H|H]; [|contradiction]. apply has_node_in, has_node_label in H. destruct H; congruence.
Qed.
Lemma padj_ends u v : padj P u v = true -> exists h m, In (h, m) P /\ pair_eqb h m u v = true.
Proof.
  unfold padj. intros H. apply existsb_exists in H. destruct H as ([h m] & Hin & Pq). exists h, m. auto.
Qed.
Lemma padj_c_none u v : padj P u v = true -> adj c u v = None.
Proof.
  intros H. destruct (padj_ends u v H) as (h & m & Hin & Pq). destruct (proj2 HP h m Hin) as [Hh _].
  apply (adj_g_notin c W). apply pair_eqb_spec in Pq. destruct Pq as [[E1 _]|[E1 _]]; subst; [left|right]; exact Hh.
Qed.

(** E is in the domain of the record-level theorems *)
Lemma E_label n : label E n = label K n.
Proof. reflexivity. Qed.
Lemma E_adj u v : adj E u v = if padj P u v then Some (EA (Some (OP 2 2)) (Some 0)) else adj c u v.
Proof.
  unfold E. rewrite normalize_emap, adj_emap, (ei_adj _ _ _ _ IE). destruct (padj P u v); [reflexivity|].
  destruct (adj c u v) as [x|] eqn:A; [|reflexivity]. destruct (iok_edge c u v x Hok A) as (a & b & -> & _). reflexivity.
Qed.
Lemma mem_ch_new h m : In (h, m) P -> mem h ch = false.
Proof.
  intros Hin. destruct (K_label_new h m Hin) as (_ & Lc & _). unfold ch.
  rewrite mem_find_changed by apply (gwf_nd _ (sl_wf _ _ _ SL)). rewrite (sl_none _ _ _ SL h Lc). reflexivity.
Qed.
Lemma elem_H : elem_str s_H.
Proof. split; [discriminate|]. constructor; [reflexivity|constructor]. Qed.

Theorem E_IOK : IOK E.
Proof.
  assert (gwf E) as WE by (unfold E; rewrite normalize_emap; apply gwf_emap, WK). split; [exact WE|split].
  - intros n a L. rewrite E_label in L. destruct (label c n) as [a0|] eqn:Lc.
    + rewrite (LE n a0 Lc) in L. injection L as <-. apply node_okP_upd. apply (iok_node c n a0 Hok Lc).
    + destruct (in_dec N.eq_dec n (map fst P)) as [Hn|Hn].
      * apply in_map_iff in Hn. destruct Hn as ([h m] & <- & Hin). simpl in L. destruct (K_label_new h m Hin) as (LK & _). rewrite LK in L.
        injection L as <-. exists s_H, false, 0, 0, false, 0, 0. repeat split; try reflexivity; apply elem_H.
      * rewrite (K_label_none n Lc Hn) in L. discriminate.
  - intros u v x A. destruct (adj_ends E u v x WE A) as [Hu Hv]. rewrite E_adj in A. destruct (padj P u v) eqn:Pa.
    + injection A as <-. exists 2, 2. repeat split; auto. left. discriminate.
    + destruct (iok_edge c u v x Hok A) as (a & b & -> & Oa & Ob & Hne & _). exists a, b. repeat split; auto.
Qed.

Let B_gn n : gn_find n (rev B) = _ := ctx_eh_gn K ch n WK.
Let B_ge u v : ge_find u v (rev B) = _ := ctx_eh_ge K ch u v WK.
Let B_endp n : endp n (rev B) = true -> _ := ctx_eh_endp K ch n WK.

Definition sideF (s : gr) : gr := sync_side (parse_r (rev B)) (lftg s ch).

Lemma side_endp_none (j : bool) s n : side_like c j s -> label c n = None -> endp n (rev (side_entries s ch)) = false.
Proof.
  intros SS L. destruct (endp n _) eqn:E0; [|reflexivity]. exfalso.
  rewrite side_entries_eq, rev_app_distr, endp_app in E0.
  rewrite endp_nodes in E0 by (intros e He; exact (Nent_nodes _ _ _ He)). simpl in E0.
  apply endp_edges_iter in E0; [|apply (sl_wf _ _ _ SS)]. apply has_node_label in E0. destruct E0 as [b Hb].
  rewrite (sl_none _ _ _ SS n L) in Hb. discriminate.
Qed.

Lemma sideF_label (j : bool) s n : side_like c j s ->
  (forall a, label c n = Some a -> mem n ch = false -> tg_ch (T_of j a) = tg_ch (tG_of a)) ->
  label (sideF s) n = option_map (fun a => gnode_att n (tg_el (T_of j a)) (tg_ch (T_of j a))) (label E n).
Proof.
  intros SS HT. unfold sideF. rewrite sync_label_gen by apply parse_gwf.
  rewrite (parse_label (rev B)), B_gn. unfold lftg. rewrite parse_label, (lft_gn c j s ch n SS). rewrite E_label.
  destruct (label c n) as [a|] eqn:L.
  - rewrite (LE n a L). simpl. rewrite node_label_upd.
    destruct (iok_node c n a Hok L) as (e & ar & h & q & ar' & h' & q' & Ht & E1 & E2 & He).
    destruct (tG_upd a) as (U1 & U2 & U3).
    assert (tg_el (T_of j (upd a)) = e /\ tg_ch (T_of j (upd a)) = tg_ch (T_of j a) /\ tg_el (T_of j a) = e) as (V1 & V2 & V3).
    { destruct j; unfold T_of; [rewrite U3|rewrite U1, U2]; unfold tG_of, tH_of; rewrite Ht; auto. }
    rewrite V1, V2. destruct (mem n ch) eqn:M.
    + rewrite V3. rewrite node_att_label by exact He. destruct (endp n (rev B)); simpl; reflexivity.
    + unfold node_label. rewrite E1, E2. simpl. rewrite node_att_label by exact He.
      rewrite (HT a eq_refl eq_refl). unfold tG_of. rewrite Ht. simpl.
      match goal with |- context [endp n (rev (side_entries ?x ?y))] => destruct (endp n (rev (side_entries x y))) end; reflexivity.
  - rewrite (side_endp_none j s n SS L). destruct (in_dec N.eq_dec n (map fst P)) as [Hn|Hn].
    + apply in_map_iff in Hn. destruct Hn as ([h m] & <- & Hin). simpl. destruct (K_label_new h m Hin) as (LK & _).
      rewrite LK, (mem_ch_new h m Hin). simpl.
      change (node_label H_att) with (s_H ++ charge_to_string 0). rewrite node_att_label by apply elem_H.
      destruct j; reflexivity.
    + rewrite (K_label_none n L Hn). destruct (endp n (rev B)) eqn:EB; [|reflexivity]. exfalso.
      apply B_endp, has_node_label in EB. destruct EB as [y Hy]. rewrite (K_label_none n L Hn) in Hy. discriminate.
Qed.

Lemma sideF_adj (j : bool) s u v : side_like c j s ->
  adj (sideF s) u v =
  if padj P u v then Some (EA (Some (OS 2)) None)
  else match adj c u v with
       | Some x => option_map (fun y => edge_att (order_label_any (e_ord y) 2)) (dd c j u v)
       | None => None
       end.
Proof.
  intros SS. unfold sideF. rewrite sync_adj_gen by apply parse_gwf. rewrite (lftg_adj c j s ch u v SS), parse_adj, B_ge, (ei_adj _ _ _ _ IE).
  destruct (padj P u v) eqn:Pa.
  - unfold dd. rewrite (padj_c_none u v Pa). reflexivity.
  - unfold dd. destruct (adj c u v) as [x|] eqn:A; [|reflexivity].
    destruct (iok_edge c u v x Hok A) as (a & b & -> & Oa & Ob & Hne & _). unfold ord_of, stdc. simpl.
    (* the context lists this bond only if it is unchanged (a = b); a side without it has order 0 there, so a <> b *)
    pose proof (ord_ok_nonneg a Oa). pose proof (ord_ok_nonneg b Ob).
    destruct (Z.ltb_spec 0 (if j then b else a)) as [Ho|Ho]; [reflexivity|]. simpl.
    destruct (Z.eqb_spec (a - b) 0) as [Eab|_]; [|reflexivity]. exfalso. destruct j; lia.
Qed.

Theorem gml_pipeline_full :
  let I' := snd (gml_to_nx [(SLeft, side_entries sL ch); (SContext, B); (SRight, side_entries sR ch)]) in
  (forall n, has_node I' n = has_node E n) /\
  (forall n a, label E n = Some a ->
     label I' n = Some (gml_node n (tg_el (tG_of a)) (tg_ch (tG_of a)) (tg_ch (tH_of a)))) /\
  (forall u v, adj I' u v = adj E u v).
Proof.
  intros I'.
  assert (I' = its_construct (sideF sL) (sideF sR) (union_pairs (sideF sL) (sideF sR))) as ->.
  { unfold I'. rewrite gml_to_nx_three. reflexivity. }
  apply (assemble E _ _ E_IOK).
  - intros n. apply (sideF_label false sL n SL). intros a _ _. reflexivity.
  - intros n. rewrite (sideF_label true sR n SR).
    + destruct (label E n) as [a|] eqn:L; [|reflexivity]. simpl.
      destruct (iok_node E n a E_IOK L) as (e & ar & h & q & ar' & h' & q' & Ht & _).
      unfold T_of, tG_of, tH_of. rewrite Ht. reflexivity.
    + intros a L M. unfold ch in M.
      rewrite (chg_mem c sL sR n a SL SR L) in M. apply negb_false_iff, Z.eqb_eq in M. unfold T_of. symmetry. exact M.
  - intros u v x A. rewrite E_adj in A. unfold scal_order. rewrite (sideF_adj false sL u v SL), (sideF_adj true sR u v SR).
    destruct (padj P u v) eqn:Pa.
    + injection A as <-. simpl. auto.
    + rewrite A. destruct (iok_edge c u v x Hok A) as (a & b & -> & Oa & Ob & _). unfold dd. rewrite A. unfold ord_of. simpl. split.
      * exact (order_back a Oa).
      * exact (order_back b Ob).
  - intros u v A. rewrite E_adj in A. rewrite (sideF_adj false sL u v SL), (sideF_adj true sR u v SR).
    destruct (padj P u v); [discriminate|]. rewrite A. auto.
Qed.
End Full.

Theorem gml_roundtrip_eh_full_iok c : IOK c ->
  let E := normalize_edge_orders (h_to_explicit c None false) in
  let I' := gml_to_its (its_to_gml c false false true) in
  (forall n, has_node I' n = has_node E n) /\
  (forall n a, label E n = Some a ->
     label I' n = Some (gml_node n (tg_el (tG_of a)) (tg_ch (tG_of a)) (tg_ch (tH_of a)))) /\
  (forall u v, adj I' u v = adj E u v).
Proof.
  intros Hok. pose proof (iok_gwf c Hok) as W.
  destruct (hexp_run_all c W) as (mx & P & IE & HP & LE'). set (K := h_to_explicit c None false) in *.
  intros E I'. unfold I', gml_to_its, its_to_gml. rewrite its_decompose_sides by exact Hok. unfold nx_to_gml. cbv iota.
  fold K.
  apply (gml_pipeline_full c Hok _ _ (side_graph_like c false Hok) (side_graph_like c true Hok) K _ P IE LE' HP).
Qed.

Theorem gml_roundtrip_eh_full c : its_ok c = true ->
  let E := normalize_edge_orders (h_to_explicit c None false) in
  let I' := gml_to_its (its_to_gml c false false true) in
  (forall n, has_node I' n = has_node E n) /\
  (forall n a, label E n = Some a ->
     label I' n = Some (gml_node n (tg_el (tG_of a)) (tg_ch (tG_of a)) (tg_ch (tH_of a)))) /\
  (forall u v, adj I' u v = adj E u v).
Proof. intros H. apply gml_roundtrip_eh_full_iok, its_ok_IOK, H. Qed.

(** non-vacuity: a full ITS C-O with three / one implicit hydrogens: the rule read back has the 2 atoms and 4 hydrogen atoms,
    each bonded (1, 1) to its heavy atom *)
Definition ex_nd_h (el : string) (h q q' : Z) : natt :=
  NA (Some (s2l el)) (Some false) (Some h) (Some q) (Some 0) (Some ((s2l el, false, h, q), (s2l el, false, h, q'))).
Definition ex_full_h : gr :=
  LG [(1%N, ex_nd_h "C" 3 0 0); (2%N, ex_nd_h "O" 1 0 (-1))] [(1%N, 2%N, EA (Some (OP 2 4)) (Some (-2)))].
Example gml_roundtrip_eh_full_ex :
  its_ok ex_full_h = true /\ hc_free ex_full_h = false /\
  List.length (gnodes (gml_to_its (its_to_gml ex_full_h false false true))) = 6%nat /\
  adj (gml_to_its (its_to_gml ex_full_h false false true)) 1%N 3%N = Some (EA (Some (OP 2 2)) (Some 0)) /\
  adj (gml_to_its (its_to_gml ex_full_h false false true)) 1%N 2%N = Some (EA (Some (OP 2 4)) (Some (-2))) /\
  label (gml_to_its (its_to_gml ex_full_h false false true)) 6%N = Some (gml_node 6%N s_H 0 0).
Proof. vm_compute. repeat split. Qed.
