(** C12 -- induced copies: a common induced mapping of two induced copies is exactly one of the graphs themselves that
    stays inside the two node sets ([ci_induced_iff]).  For wildcard pruning (MCSMatcher._prune_graph, the induced copy on
    the non-wildcard atoms) this says what the theorems mean: a common induced mapping of the
    PRUNED graphs is exactly a common induced mapping of the ORIGINAL graphs that touches no wildcard atom.
    Also: two results that satisfy the maximum-mode specification for the same pair of graphs agree (used for the
    orientation swap with graphs of equal size), and what the matchers compare for one configured attribute each
    ([matchers_single]). *)
From Coq Require Import List NArith ZArith Bool Arith Lia Permutation.
From SK Require Import lib.LGraph model.C12_Model proof.C12_Search proof.C12_Proof.
Import ListNotations.

Definition kept_ids (wc : N) (g : graph) : list N :=
  map fst (filter (fun p => negb (is_wc wc (snd p))) (gnodes g)).

(** is node [p] of [g] a wildcard atom (its element attribute equals the wildcard element) *)
Definition wc_node (wc : N) (g : graph) (p : N) : bool :=
  match label g p with Some a => is_wc wc a | None => false end.

Lemma assoc_filter_keep {V} (keep : list N) (l : list (N * V)) k :
  assoc k (filter (fun p => mem (fst p) keep) l) = if mem k keep then assoc k l else None.
Proof.
  induction l as [|[k' v] r IH]; simpl; [destruct (mem k keep); reflexivity|].
  destruct (mem k' keep) eqn:Ek'; simpl.
  - destruct (N.eqb_spec k k') as [->|Hne]; [now rewrite Ek'|exact IH].
  - destruct (N.eqb_spec k k') as [->|Hne]; [now rewrite IH, Ek'|exact IH].
Qed.

Lemma find_edge_filter_keep {B} (keep : list N) (es : list (N * N * B)) u v :
  mem u keep = true -> mem v keep = true ->
  find_edge u v (filter (fun e => let '(a, b, _) := e in mem a keep && mem b keep) es) = find_edge u v es.
Proof.
  intros Hu Hv. induction es as [|[[a b] x] r IH]; simpl; [reflexivity|].
  destruct ((N.eqb a u && N.eqb b v) || (N.eqb a v && N.eqb b u)) eqn:Em.
  - assert (Hk : mem a keep && mem b keep = true).
    { apply orb_prop in Em. destruct Em as [Em|Em]; apply andb_prop in Em; destruct Em as [E1 E2];
        apply N.eqb_eq in E1, E2; subst; now rewrite Hu, Hv. }
    rewrite Hk. simpl. now rewrite Em.
  - destruct (mem a keep && mem b keep); simpl; [rewrite Em|]; exact IH.
Qed.

Lemma induced_nodes (g : graph) keep p : In p (node_ids (induced_sub g keep)) <-> In p (node_ids g) /\ In p keep.
Proof.
  unfold node_ids, induced_sub. simpl. rewrite !in_map_iff. split.
  - intros ([p' a] & <- & I). apply filter_In in I. destruct I as (I & Hm). simpl in *.
    split; [exists (p', a); auto|now apply mem_spec].
  - intros (([p' a] & <- & I) & Hk). exists (p', a). split; [reflexivity|].
    apply filter_In. split; [exact I|]. simpl. now apply mem_spec.
Qed.

Lemma induced_label (g : graph) keep p : In p keep -> label (induced_sub g keep) p = label g p.
Proof.
  intros I. unfold label, induced_sub. simpl. rewrite assoc_filter_keep. apply mem_spec in I. now rewrite I.
Qed.

Lemma induced_adj (g : graph) keep p q : In p keep -> In q keep -> LGraph.adj (induced_sub g keep) p q = LGraph.adj g p q.
Proof.
  intros Ip Iq. unfold LGraph.adj, induced_sub. simpl. apply find_edge_filter_keep; now apply mem_spec.
Qed.

Theorem ci_induced_iff nm em (g1 g2 : graph) k1 k2 m :
  common_induced nm em (induced_sub g1 k1) (induced_sub g2 k2) m <->
  common_induced nm em g1 g2 m /\ forall p h, In (p, h) m -> In p k1 /\ In h k2.
Proof.
  split.
  - intros (H1 & H2 & H3 & H4).
    assert (K : forall p h, In (p, h) m -> In p k1 /\ In h k2).
    { intros p h I. destruct (H3 p h I) as (Hp & Hh & _). apply induced_nodes in Hp, Hh. exact (conj (proj2 Hp) (proj2 Hh)). }
    split; [|exact K]. split; [exact H1|]. split; [exact H2|]. split.
    + intros p h I. destruct (K p h I) as (Kp & Kh). destruct (H3 p h I) as (Hp & Hh & Hn).
      apply induced_nodes in Hp, Hh. rewrite (induced_label g1 k1 p Kp), (induced_label g2 k2 h Kh) in Hn.
      exact (conj (proj1 Hp) (conj (proj1 Hh) Hn)).
    + intros p h p' h' I I' Hne. destruct (K p h I) as (Kp & Kh). destruct (K p' h' I') as (Kp' & Kh').
      rewrite <- (induced_adj g1 k1 p p' Kp Kp'), <- (induced_adj g2 k2 h h' Kh Kh'). exact (H4 p h p' h' I I' Hne).
  - intros ((H1 & H2 & H3 & H4) & K). split; [exact H1|]. split; [exact H2|]. split.
    + intros p h I. destruct (K p h I) as (Kp & Kh). destruct (H3 p h I) as (Hp & Hh & Hn).
      rewrite (induced_label g1 k1 p Kp), (induced_label g2 k2 h Kh).
      split; [apply induced_nodes; exact (conj Hp Kp)|]. split; [apply induced_nodes; exact (conj Hh Kh)|exact Hn].
    + intros p h p' h' I I' Hne. destruct (K p h I) as (Kp & Kh). destruct (K p' h' I') as (Kp' & Kh').
      rewrite (induced_adj g1 k1 p p' Kp Kp'), (induced_adj g2 k2 h h' Kh Kh'). exact (H4 p h p' h' I I' Hne).
Qed.

Lemma kept_ids_spec wc (g : graph) p : NoDup (node_ids g) -> In p (kept_ids wc g) <-> In p (node_ids g) /\ wc_node wc g p = false.
Proof.
  intros g_nodup. unfold kept_ids, wc_node, label. rewrite in_map_iff. split.
  - intros ([p' a] & <- & I). apply filter_In in I. destruct I as (I & Hw). simpl in *.
    split; [change p' with (fst (p', a)); now apply in_map|].
    rewrite (assoc_nodup_in _ _ _ g_nodup I). now apply negb_true_iff.
  - intros (I & Hw). apply in_map_iff in I. destruct I as ([p' a] & <- & I). simpl in *.
    rewrite (assoc_nodup_in _ _ _ g_nodup I) in Hw.
    exists (p', a). split; [reflexivity|]. apply filter_In. split; [exact I|]. simpl. now rewrite Hw.
Qed.

Theorem prune_ci_iff nm em wc (g1 g2 : graph) m : NoDup (node_ids g1) -> NoDup (node_ids g2) ->
  (common_induced nm em (prune_graph true wc g1) (prune_graph true wc g2) m <->
   common_induced nm em g1 g2 m /\
   forall p h, In (p, h) m -> wc_node wc g1 p = false /\ wc_node wc g2 h = false).
Proof.
  intros N1 N2. unfold prune_graph. fold (kept_ids wc g1) (kept_ids wc g2). rewrite ci_induced_iff.
  split; intros (C & K); (split; [exact C|]); intros p h I; destruct (K p h I) as (Kp & Kh).
  - apply (kept_ids_spec wc g1 p N1) in Kp. apply (kept_ids_spec wc g2 h N2) in Kh. tauto.
  - destruct C as (_ & _ & H3 & _). destruct (H3 p h I) as (Hp & Hh & _).
    split; [apply (kept_ids_spec wc g1 p N1)|apply (kept_ids_spec wc g2 h N2)]; auto.
Qed.

(** consequence for the matcher with prune_wc on: every returned G1->G2 mapping is a common induced mapping of the
    ORIGINAL graphs and maps no wildcard atom *)
Corollary fcs_valid_original defs wc (g1 g2 : graph) mcs m : NoDup (node_ids g1) -> NoDup (node_ids g2) ->
  In m (get_mappings G1toG2 (find_common_subgraph defs true wc g1 g2 mcs)) ->
  common_induced (node_match defs) edge_match g1 g2 m /\
  forall p h, In (p, h) m -> wc_node wc g1 p = false /\ wc_node wc g2 h = false.
Proof.
  intros N1 N2 I. apply (prune_ci_iff _ _ wc g1 g2 m N1 N2).
  exact (proj1 (proj1 (fcs_valid defs true wc g1 g2 N1 N2 mcs m) I)).
Qed.

(* ------------------------------------------------------------------ two maximum results for the same pair agree *)
Lemma MaxSpec_unique nm em ga gb maps last maps' last' :
  MaxSpec nm em ga gb maps last -> MaxSpec nm em ga gb maps' last' ->
  last = last' /\ forall m, In m maps -> exists m', In m' maps' /\ Permutation m m'.
Proof.
  intros M M'.
  assert (Hle : forall mp l mp' l', MaxSpec nm em ga gb mp l -> MaxSpec nm em ga gb mp' l' -> l <= l').
  { intros mp l mp' l' (A1 & _ & _ & A4) (_ & B2 & _). destruct mp as [|m0 r].
    - rewrite (proj1 A4 eq_refl). lia.
    - destruct (A1 m0 (or_introl eq_refl)) as (Hc & <-). now apply B2. }
  assert (E : last = last') by (apply Nat.le_antisymm; eapply Hle; eassumption).
  split; [exact E|]. subst last'. intros m I. destruct (proj1 M m I) as (Hc & Hl).
  apply (proj1 (proj2 (proj2 M'))); [exact Hc|exact Hl|].
  rewrite <- Hl. exact (proj2 (MaxSpec_valid nm em ga gb maps last M m I)).
Qed.

(** orientation in general (also for graphs of equal size, where the two calls use different patterns): exchanging
    the arguments gives the same size and, up to the order of pairs inside a mapping, the same G1->G2 answers *)
Theorem orientation_general defs prune wc (g1 g2 : graph) : NoDup (node_ids g1) -> NoDup (node_ids g2) ->
  r_last (find_common_subgraph defs prune wc g1 g2 true) = r_last (find_common_subgraph defs prune wc g2 g1 true) /\
  forall m, In m (get_mappings G1toG2 (find_common_subgraph defs prune wc g1 g2 true)) ->
            exists m', In m' (get_mappings G2toG1 (find_common_subgraph defs prune wc g2 g1 true)) /\ Permutation m m'.
Proof.
  intros N1 N2.
  exact (MaxSpec_unique _ _ _ _ _ _ _ _ (proj1 (fcs_maximum defs prune wc g1 g2 N1 N2))
                        (proj2 (fcs_maximum defs prune wc g2 g1 N2 N1))).
Qed.

(* ------------------------------------------------------------------ non-vacuity *)
Module Example_prune.
Open Scope N_scope.
Definition nd (i e : N) : N * nattr := (i, (Some e, [Some e])).
(** g1: C1-*2-O3 (wildcard element 9 in the middle), g2: C5-*6 *)
Definition g1 : graph := LG [nd 1 1; nd 2 9; nd 3 2] [((1,2), [Some 2%Z]); ((2,3), [Some 2%Z])].
Definition g2 : graph := LG [nd 5 1; nd 6 9] [((5,6), [Some 2%Z])].
Lemma g1_nodup : NoDup (node_ids g1). Proof. now apply nodupb_spec. Qed.
Lemma g2_nodup : NoDup (node_ids g2). Proof. now apply nodupb_spec. Qed.

Example prune_nonvacuous :
  get_mappings G1toG2 (find_common_subgraph [9] true 9 g1 g2 true) = [[(1, 5)]] /\
  get_mappings G1toG2 (find_common_subgraph [9] false 9 g1 g2 true) = [[(1, 5); (2, 6)]] /\
  wc_node 9 g1 2 = true /\
  (common_induced (node_match [9]) edge_match g1 g2 [(1, 5)] /\
   forall p h, In (p, h) [(1, 5)] -> wc_node 9 g1 p = false /\ wc_node 9 g2 h = false).
Proof.
  split; [vm_compute; reflexivity|]. split; [vm_compute; reflexivity|]. split; [reflexivity|].
  apply (fcs_valid_original [9] 9 g1 g2 true [(1, 5)] g1_nodup g2_nodup). vm_compute. now left.
Qed.

(** equal sizes: the two calls search with different patterns and still agree *)
Definition h1 : graph := LG [nd 1 1; nd 2 2] [((1,2), [Some 4%Z])].
Definition h2 : graph := LG [nd 8 2; nd 9 1] [((8,9), [Some 4%Z])].
Example orientation_general_nonvacuous :
  get_mappings G1toG2 (find_common_subgraph [9] false 9 h1 h2 true) = [[(1, 9); (2, 8)]] /\
  get_mappings G2toG1 (find_common_subgraph [9] false 9 h2 h1 true) = [[(2, 8); (1, 9)]] /\
  r_pattern_is_g1 (find_common_subgraph [9] false 9 h1 h2 true) = true /\
  r_pattern_is_g1 (find_common_subgraph [9] false 9 h2 h1 true) = true.
Proof. repeat apply conj; vm_compute; reflexivity. Qed.
End Example_prune.

(* ------------------------------------------------------------------ what the matchers compare (one configured attribute each) *)
Lemma matchers_single (d : N) (e e' : option N) (a b : option N) (x y : option Z) :
  (node_match [d] (Some (e, [a])) (Some (e', [b])) = true <->
     match a with Some v => v | None => d end = match b with Some v => v | None => d end) /\
  (edge_match [x] [y] = true <-> x = y) /\
  (edge_match_mtg [x] [y] = true <-> x = y).
Proof.
  split; [|split].
  - simpl. rewrite andb_true_r. apply N.eqb_eq.
  - destruct x, y; simpl; try rewrite andb_true_r; try rewrite Z.eqb_eq; split; intros H; try congruence; try discriminate; auto.
  - destruct x, y; simpl; try rewrite Z.eqb_eq; split; intros H; try congruence; try discriminate; auto.
Qed.
