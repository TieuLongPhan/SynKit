(** C09 — the exact back-end on a CANONICAL graph returns the identity order, for EVERY graph.

    Let q0 be the best leaf of the search on g and h a presentation of g renamed by pi with pi q0 = [1; 2; ...; N] and
    atom_map = node id (what the parser returns for the canonical string).  The search tree of h is the image of the tree of
    g; at depth j the target cell of the path to pi q0 contains no individualised vertex, i.e. only ids > j, and it contains
    j + 1: the child visited FIRST (children are visited in increasing atom_map = id).  So pi q0 = [1..N] is the first leaf of
    the whole depth-first enumeration, its label is the minimal one, and [visit] replaces the best leaf only by a strictly
    smaller label: nauty_perm h = [1..N].  No hypothesis on the automorphisms of g. *)
From Coq Require Import List NArith ZArith Bool Arith Lia Permutation.
From SK Require Import lib.LGraph lib.IRSortKeys lib.IRCore lib.IRSearch model.C08_Model
  proof.C08_Spec proof.C08_IR proof.C08_Nauty proof.C08_Equiv proof.C08_Auts proof.C08_Sort.
From SK Require lib.IRInst.
Import ListNotations.

(** * small list facts *)
Lemma app_eq_len {X} : forall (l1 m1 l2 m2 : list X), l1 ++ l2 = m1 ++ m2 -> length l1 = length m1 -> l1 = m1 /\ l2 = m2.
Proof.
  induction l1 as [|x l1 IH]; intros [|y m1] l2 m2 E Hl; simpl in *; try discriminate; auto.
  injection E as -> E. destruct (IH m1 l2 m2 E) as [-> ->]; [lia|]. auto.
Qed.

(** the head of a sorted list is its strict minimum *)
Lemma sort_head (key : N -> list Z) (l : list N) (m : N) : In m l ->
  (forall w, In w l -> w <> m -> lexleb (key w) (key m) = false) -> exists tl, sort_by key l = m :: tl.
Proof.
  intros Im Hmin. pose proof (sort_by_sorted key l) as Hs. pose proof (sort_by_perm key l) as Hp.
  destruct (sort_by key l) as [|x tl] eqn:E.
  - apply Permutation_nil in Hp. subst l. destruct Im.
  - exists tl. f_equal.
    assert (Ix : In x l) by (apply (Permutation_in _ Hp); left; reflexivity).
    assert (Im' : In m (x :: tl)) by (apply (Permutation_in _ (Permutation_sym Hp)); exact Im).
    destruct Im' as [Ex|It]; [exact Ex|].
    inversion Hs as [|? ? _ Hx]; subst.
    destruct (N.eq_dec x m) as [Ex|Hne]; [exact Ex|].
    specialize (Hx m It). rewrite (Hmin x Ix Hne) in Hx. discriminate.
Qed.

(** folding [visit] over leaves whose labels are all >= the current best label keeps the best leaf *)
Lemma fold_visit_keep (k : graph) : forall (l : list (list N)) (a : nacc) bl bp,
  fst a = Some (bl, bp) -> (forall q, In q l -> strleb bl (nlabel k q) = true) ->
  fst (fold_left (visit strleb (nlabel k)) l a) = Some (bl, bp).
Proof.
  induction l as [|p l IH]; intros a bl bp Ha Hl; [exact Ha|]. cbn [fold_left]. apply IH.
  - unfold visit. rewrite Ha.
    assert (E : ltb strleb (nlabel k p) bl = false).
    { unfold ltb. rewrite (Hl p (or_introl eq_refl)). cbn [negb]. apply andb_false_r. }
    rewrite E. destruct (eqb strleb (nlabel k p) bl); cbn [fst]; try exact Ha; reflexivity.
  - intros q I. apply Hl. right. exact I.
Qed.

Section Path.
Variable pi : N -> N.
Hypothesis pi_inj : forall x y, pi x = pi y -> x = y.
Variables g h : graph.
Hypothesis Hg : wf g.
Hypothesis Hq : geq_cov (relabel pi g) h.
(** in h the atom_map of every atom is its node id (the parser's reading of a fully numbered string) *)
Hypothesis Hk : forall w, In w (node_ids g) -> amkey h (pi w) = Z.of_N (pi w).
Variable q0 : list N.
Hypothesis Hq0 : Permutation q0 (node_ids g).
Hypothesis Hid : map pi q0 = map N.of_nat (seq 1 (length q0)).

Let nodes := node_ids g.
Let Hnd : NoDup nodes := proj1 Hg.

(** positions: an atom after the prefix pre ++ [v] of q0 has a larger image than v *)
Lemma later_larger pre v r w : q0 = pre ++ v :: r -> In w q0 -> ~ In w pre -> w <> v -> (pi v < pi w)%N.
Proof.
  intros E Iw Np Nv. rewrite E in Iw. apply in_app_or in Iw. destruct Iw as [Iw|[Iw|Iw]]; [contradiction|congruence|].
  pose proof Hid as H. rewrite E in H. rewrite map_app, app_length in H. cbn [map length] in H.
  replace (length pre + S (length r))%nat with (length pre + (1 + length r))%nat in H by lia.
  rewrite seq_app, map_app in H. cbn [seq map] in H.
  apply app_eq_len in H; [|rewrite !map_length, seq_length; reflexivity]. destruct H as [_ H]. injection H as Hv Hr.
  assert (I' : In (pi w) (map pi r)) by (apply in_map; exact Iw). rewrite Hr in I'. apply in_map_iff in I'.
  destruct I' as (j & Ej & Ij). apply in_seq in Ij. rewrite Hv, <- Ej. lia.
Qed.

Lemma path : forall fuel P P' pre, partR pi P P' -> vpart nodes P -> pre_ok P pre ->
  In q0 (leaves2 _ lexleb (sigN g) (rfuel g) (children g) fuel P pre) ->
  exists rest, leaves2 _ lexleb (sigN h) (rfuel g) (children h) fuel P' (map pi pre) = map pi q0 :: rest.
Proof.
  induction fuel as [|f IH]; intros P P' pre HP HV [Hpn Hpre] Hin; [destruct Hin|].
  cbn [leaves2] in *.
  pose proof (refine_rel lexleb IRInst.lexleb_total IRInst.lexleb_trans IRInst.lexleb_antisym (sigN g) (sigN h)
                (sigN_rel pi pi_inj g h Hg Hq) (rfuel g) HP) as HR.
  pose proof (refine_vpart _ lexleb IRInst.lexleb_total IRInst.lexleb_trans IRInst.lexleb_antisym (sigN g) nodes (rfuel g) P HV) as HV1.
  assert (Hpre1 : forall x, In x pre -> In [x] (refine lexleb (sigN g) (rfuel g) P)) by (intros; apply refine_single; auto).
  set (P1 := refine lexleb (sigN g) (rfuel g) P) in *. set (P1' := refine lexleb (sigN h) (rfuel g) P') in *.
  rewrite (first_big_rel HR). destruct (first_big P1) as [i|] eqn:Efb.
  - apply in_flat_map in Hin. destruct Hin as (v & Hv & Hin).
    apply (Permutation_in _ (children_perm g _)) in Hv.
    destruct (first_big_spec _ _ Efb) as [Hi Hbig].
    assert (Hnc : NoDup (concat P1)) by (apply (vpart_nodup nodes Hnd); exact HV1).
    assert (Hnotpre : forall w, In w (nth i P1 []) -> ~ In w pre).
    { intros w Iw Ip. assert (E : nth i P1 [] = [w]).
      { apply (single_cell_unique P1); auto. apply nth_In; auto. }
      rewrite E in Hbig. simpl in Hbig. lia. }
    destruct (individualise_props nodes _ i v Hnd HV1 Efb Hv) as [HVi _].
    assert (Hok : pre_ok (individualise P1 i v) (pre ++ [v])).
    { split.
      - apply NoDup_app_intro; auto; [constructor; [intros []|constructor]|].
        intros x H1 [E0|[]]. subst x. exact (Hnotpre v Hv H1).
      - intros x Hx. apply in_app_or in Hx. destruct Hx as [Hx|[<-|[]]]; [apply individualise_single; auto|apply individualise_new]. }
    destruct (leaves2_prefix _ _ _ _ _ _ _ _ _ Hin) as (r & Er). rewrite <- app_assoc in Er. cbn [app] in Er.
    (* the first child in h is pi v *)
    assert (Hc : cellR pi (nth i P1 []) (nth i P1' [])).
    { apply (@Forall2_nth _ _ (cellR pi) [] [] i _ _ HR). unfold cellR. simpl. auto. }
    unfold cellR in Hc.
    assert (Hcell_nodes : forall w, In w (nth i P1 []) -> In w nodes).
    { intros w Iw. apply (Permutation_in _ (proj1 HV1)). apply (in_concat_cell P1 (nth i P1 [])); auto. apply nth_In; auto. }
    destruct (sort_head (fun x => [amkey h x]) (nth i P1' []) (pi v)) as (tl & Etl).
    { apply (Permutation_in _ Hc). apply in_map. exact Hv. }
    { intros w' Iw' Hne. apply (Permutation_in _ (Permutation_sym Hc)) in Iw'. apply in_map_iff in Iw'.
      destruct Iw' as (w & <- & Iw).
      assert (Hwv : w <> v) by (intros ->; apply Hne; reflexivity).
      assert (Hlt : (pi v < pi w)%N).
      { apply (later_larger pre v r w Er); auto. apply (Permutation_in _ (Permutation_sym Hq0)). apply Hcell_nodes. exact Iw. }
      rewrite (Hk w (Hcell_nodes w Iw)), (Hk v (Hcell_nodes v Hv)). simpl.
      destruct (Z.ltb_spec (Z.of_N (pi w)) (Z.of_N (pi v))); [lia|]. destruct (Z.ltb_spec (Z.of_N (pi v)) (Z.of_N (pi w))); [reflexivity|lia]. }
    assert (Etl' : children h (nth i P1' []) = pi v :: tl) by exact Etl.
    rewrite Etl'. cbn [flat_map].
    destruct (IH (individualise P1 i v) (individualise P1' i (pi v)) (pre ++ [v])
                (individualise_rel pi_inj i v HR) HVi Hok Hin) as (rest & Erest).
    rewrite map_app in Erest. cbn [map] in Erest. rewrite Erest. cbn [app]. eexists. reflexivity.
  - destruct Hin as [Hin|[]]. rewrite <- Hin. cbn [leaves2]. rewrite (discrete_concat HR Efb), (mkleaf_map pi pi_inj). eexists. reflexivity.
Qed.
End Path.

(** the exact back-end returns the image of the best leaf, i.e. the identity order 1..N, on every presentation of the canonical graph *)
Theorem nauty_perm_canonical (pi : N -> N) (g h : graph) :
  (forall x y, pi x = pi y -> x = y) -> wf g -> NoDup (node_ids h) -> geq_cov (relabel pi g) h ->
  (forall w, In w (node_ids g) -> amkey h (pi w) = Z.of_N (pi w)) ->
  map pi (nauty_perm g) = map N.of_nat (seq 1 (length (nauty_perm g))) ->
  nauty_perm h = map pi (nauty_perm g).
Proof.
  intros pi_inj Hg Hnh Hq Hk Hid. pose proof (proj1 Hg) as Hng.
  destruct (nauty_perm_leaf g Hng) as [Lq0 Elab].
  destruct (fuel_rel pi g h Hq) as [Erf Esf].
  destruct (path pi pi_inj g h Hg Hq Hk (nauty_perm g) (nauty_perm_perm g Hng) Hid (sfuel g) (init_partition g) (init_partition h) []
              (init_rel pi pi_inj g h Hg Hq) (init_vpart g)) as (rest & Elv).
  { split; [constructor|intros x []]. }
  { exact Lq0. }
  cbn [map] in Elv.
  set (p0 := map pi (nauty_perm g)) in *.
  assert (Efold : nauty_acc h = fold_left (visit strleb (nlabel h)) (p0 :: rest) (None, [])).
  { unfold nauty_acc. rewrite nsearch_is_fold, Erf, Esf, Elv. reflexivity. }
  (* the best label of h is the label of p0 *)
  assert (Elh : nauty_label h = Some (nlabel h p0)).
  { rewrite (nauty_label_rel pi pi_inj g h Hg Hq), Elab. unfold p0. rewrite (nlabel_rel pi pi_inj g h Hg Hq). reflexivity. }
  pose proof (fold_inv h (p0 :: rest) [] (None, [])) as Hinv. rewrite app_nil_r, <- Efold in Hinv.
  assert (I0 : inv h [] (None, [])) by (unfold inv; cbn [fst]; intros q []).
  specialize (Hinv I0). unfold inv in Hinv.
  unfold nauty_label in Elh. destruct (fst (nauty_acc h)) as [[bl bp]|] eqn:Ea; [|discriminate].
  cbn [option_map fst] in Elh. injection Elh as ->.
  unfold nauty_perm. rewrite Efold. cbn [fold_left]. unfold visit at 2. cbn [fst].
  rewrite (fold_visit_keep h rest _ (nlabel h p0) p0); [reflexivity|reflexivity|].
  intros q I. apply (proj1 (Hinv q (or_intror I))).
Qed.
