(** C18 — under integer_ids=True the known finding C18:view-id-collision does not occur: species and reactions are numbered
    separately, so the numbered network is inside the domain of the network theorems WITHOUT any disjointness assumption on
    names, and clause 2 holds for EVERY injective renaming of the species (also onto reaction ids). *)
From Coq Require Import List NArith ZArith Bool Arith Lia Permutation.
From SK Require Import lib.IRSortKeys lib.IRCore lib.IRSearch lib.C18_IRValid model.C18_Model model.C18_IntIdsModel
  proof.C18_Spec proof.C18_Graph proof.C18_Canon proof.C18_View proof.C18_NetBip proof.C18_Net proof.C18_IntIds.
Import ListNotations.

(** what CRNHyperGraph guarantees structurally: species, reaction ids and the species inside one side are dict keys *)
Definition net_struct (n : net) : Prop :=
  NoDup (nspecies n) /\ NoDup (map rid (nrxns n)) /\ net_closed n /\
  forall r, In r (nrxns n) -> NoDup (map fst (lhs r)) /\ NoDup (map fst (rhs r)).

Lemma side_keys_nodup (h : N -> N) (sp : list N) (l : list (N * Z)) : inj_on h sp ->
  (forall sc, In sc l -> In (fst sc) sp) -> NoDup (map fst l) -> NoDup (map (fun sc => h (fst sc)) l).
Proof.
  intros Hh Hl Hn. rewrite <- (map_map fst h). apply NoDup_map_inj_on; [|exact Hn]. intros x y Hx Hy.
  apply in_map_iff in Hx, Hy. destruct Hx as (sx & <- & Ix), Hy as (sy & <- & Iy). apply Hh; auto.
Qed.

Section Num.
Variable n : net.
Hypothesis Hs : net_struct n.
Let NS := N.of_nat (length (sortN (nspecies n))).

Lemma intids_species : nspecies (intids_net n) = map (int_sp n) (nspecies n).
Proof. reflexivity. Qed.
Lemma intids_rids : map rid (nrxns (intids_net n)) = map (int_rx n) (map rid (nrxns n)).
Proof. unfold intids_net. simpl. rewrite !map_map. reflexivity. Qed.

Lemma NoDup_app_ranges (l1 l2 : list N) (b : N) : NoDup l1 -> NoDup l2 -> (forall x, In x l1 -> (x <= b)%N) -> (forall x, In x l2 -> (b < x)%N) ->
  NoDup (l1 ++ l2).
Proof. intros H1 H2 H3 H4. apply NoDup_app_intro; auto. intros x I1 I2. specialize (H3 x I1). specialize (H4 x I2). lia. Qed.

Theorem intids_net_ok st : net_ok st (intids_net n).
Proof.
  destruct Hs as (Hsp & Hr & Hcl & Hside). split; [|split].
  - rewrite intids_species, intids_rids. apply (NoDup_app_ranges _ _ NS).
    + apply NoDup_map_inj_on; auto. intros x y Hx Hy. apply int_sp_inj; auto.
    + apply NoDup_map_inj_on; auto. intros x y Hx Hy. apply int_rx_inj; auto.
    + intros x Hx. apply in_map_iff in Hx. destruct Hx as (s & <- & Hin). apply int_sp_range; auto.
    + intros x Hx. apply in_map_iff in Hx. destruct Hx as (e & <- & Hin). apply int_rx_range.
  - intros r' Hr' sc' Hsc'. unfold intids_net in *. simpl in *. apply in_map_iff in Hr'. destruct Hr' as (r & <- & Hin).
    simpl in Hsc'. unfold int_side in Hsc'. rewrite <- map_app in Hsc'. apply in_map_iff in Hsc'. destruct Hsc' as (sc & <- & Hsc).
    simpl. apply in_map. apply (Hcl r Hin sc Hsc).
  - assert (Hsd : forall l, (forall sc, In sc l -> In (fst sc) (nspecies n)) -> NoDup (map fst l) -> NoDup (map fst (int_side n l))).
    { intros l Hl Hn. unfold int_side. rewrite map_map. exact (side_keys_nodup (int_sp n) (nspecies n) l (int_sp_inj n) Hl Hn). }
    apply arc_keys_nodup.
    + rewrite intids_rids. apply NoDup_map_inj_on; [|exact Hr]. intros x y Hx Hy. apply int_rx_inj; auto.
    + intros r' Hr'. apply in_map_iff in Hr'. destruct Hr' as (r & <- & Hin). destruct (Hside r Hin) as [Hl Hrr]. cbn [lhs rhs].
      split; (apply Hsd; [intros sc I; apply (Hcl r Hin); apply in_or_app; auto|assumption]).
    + (* a species number is at most NS, a reaction number above it *)
      intros r' sc' Hr' Hsc' Hrid. apply in_map_iff in Hr'. destruct Hr' as (r & <- & Hin). cbn [lhs rhs] in Hsc'.
      unfold int_side in Hsc'. rewrite <- map_app in Hsc'. apply in_map_iff in Hsc'. destruct Hsc' as (sc & <- & Hsc).
      rewrite intids_rids in Hrid. apply in_map_iff in Hrid. destruct Hrid as (e & E & _). cbn [fst] in E.
      pose proof (int_rx_range n e). pose proof (int_sp_range n (fst sc) (Hcl r Hin sc Hsc)). lia.
Qed.
End Num.

(* ---------------- clause 2 under integer_ids for every injective species renaming ---------------- *)
Lemma rename_species_struct f n : net_struct n -> inj_on f (nspecies n) -> net_struct (rename_species f n).
Proof.
  intros (Hsp & Hr & Hcl & Hside) Hf. unfold rename_species. split; [|split; [|split]]; simpl.
  - apply NoDup_map_inj_on; auto.
  - rewrite map_map. simpl. exact Hr.
  - intros r' Hr' sc' Hsc'. apply in_map_iff in Hr'. destruct Hr' as (r & <- & Hin). simpl in Hsc'.
    unfold rename_side in Hsc'. rewrite <- map_app in Hsc'. apply in_map_iff in Hsc'. destruct Hsc' as (sc & <- & Hsc). simpl.
    apply in_map. apply (Hcl r Hin sc Hsc).
  - intros r' Hr'. apply in_map_iff in Hr'. destruct Hr' as (r & <- & Hin). simpl. unfold rename_side. rewrite !map_map. simpl.
    destruct (Hside r Hin) as [H1 H2].
    split; apply (side_keys_nodup f (nspecies n)); auto; intros sc I; apply (Hcl r Hin); apply in_or_app; auto.
Qed.

Lemma coeffs_ok_intids n : coeffs_ok n -> coeffs_ok (intids_net n).
Proof.
  intros Hc r' Hr' sc' Hsc'. unfold intids_net in Hr'. simpl in Hr'. apply in_map_iff in Hr'. destruct Hr' as (r & <- & Hin).
  simpl in Hsc'. unfold int_side in Hsc'. rewrite <- map_app in Hsc'. apply in_map_iff in Hsc'. destruct Hsc' as (sc & <- & Hsc). simpl.
  apply (Hc r Hin sc Hsc).
Qed.

Section Ren.
Variables (f : N -> N) (n : net).
Hypothesis Hs : net_struct n.
Hypothesis Hf : inj_on f (nspecies n).
Let n' := rename_species f n.
Let Hs' : net_struct n' := rename_species_struct f n Hs Hf.

(** the renaming seen on the numbers *)
Definition num_map (x : N) : N :=
  if memN x (map (int_sp n) (nspecies n)) then int_sp n' (f (finv (int_sp n) (nspecies n) x))
  else int_rx n' (finv (int_rx n) (map rid (nrxns n)) x).

Lemma num_map_sp s : In s (nspecies n) -> num_map (int_sp n s) = int_sp n' (f s).
Proof.
  intros H. unfold num_map.
  assert (M : memN (int_sp n s) (map (int_sp n) (nspecies n)) = true) by (apply memN_spec; apply in_map; auto).
  rewrite M. rewrite finv_left; auto. intros x y Hx Hy. apply int_sp_inj; auto.
Qed.
Lemma num_map_rx e : In e (map rid (nrxns n)) -> num_map (int_rx n e) = int_rx n' e.
Proof.
  intros H. unfold num_map.
  destruct (memN (int_rx n e) (map (int_sp n) (nspecies n))) eqn:M.
  - apply memN_spec in M. apply in_map_iff in M. destruct M as (s & E & Hin).
    pose proof (int_sp_range n s Hin). pose proof (int_rx_range n e). lia.
  - rewrite finv_left; auto. intros x y Hx Hy. apply int_rx_inj; auto.
Qed.

Lemma same_count : length (sortN (nspecies n')) = length (sortN (nspecies n)).
Proof.
  rewrite !sortN_length; [|apply Hs|apply Hs']. unfold n', rename_species. simpl. apply map_length.
Qed.

Lemma num_map_inj : inj_on num_map (nspecies (intids_net n) ++ map rid (nrxns (intids_net n))).
Proof.
  rewrite intids_species, intids_rids. intros x y Hx Hy.
  assert (Hfs : forall s, In s (nspecies n) -> In (f s) (nspecies n')) by (intros s I; unfold n', rename_species; simpl; apply in_map; auto).
  assert (Hrid' : map rid (nrxns n') = map rid (nrxns n)) by (unfold n', rename_species; simpl; rewrite map_map; reflexivity).
  apply in_app_or in Hx. apply in_app_or in Hy.
  destruct Hx as [Hx|Hx], Hy as [Hy|Hy]; apply in_map_iff in Hx; apply in_map_iff in Hy;
    destruct Hx as (a & <- & Ha), Hy as (b & <- & Hb).
  - rewrite !num_map_sp by auto. intros E. f_equal. apply Hf; auto. apply (int_sp_inj n'); auto.
  - rewrite num_map_sp, num_map_rx by auto. intros E. exfalso.
    pose proof (int_sp_range n' (f a) (Hfs a Ha)). pose proof (int_rx_range n' b). lia.
  - rewrite num_map_sp, num_map_rx by auto. intros E. exfalso.
    pose proof (int_sp_range n' (f b) (Hfs b Hb)). pose proof (int_rx_range n' a). lia.
  - rewrite !num_map_rx by auto. intros E. f_equal. apply (int_rx_inj n'); auto; rewrite Hrid'; auto.
Qed.

Lemma num_map_variant : net_variant num_map (intids_net n) (intids_net n').
Proof.
  destruct Hs as (Hsp & Hr & Hcl & Hside). split.
  - rewrite !intids_species. unfold n' at 2, rename_species. simpl. rewrite !map_map.
    rewrite (map_ext_in (fun x => num_map (int_sp n x)) (fun x => int_sp n' (f x))) by (intros; apply num_map_sp; auto).
    apply Permutation_refl.
  - exists (nrxns (intids_net n')). split; [|apply Permutation_refl].
    unfold intids_net. simpl. unfold n' at 2, rename_species. simpl. rewrite map_map.
    assert (G : forall rs, (forall r, In r rs -> In r (nrxns n)) ->
              Forall2 (rxn_variant num_map)
                (map (fun r => Rxn (int_rx n (rid r)) (int_side n (lhs r)) (int_side n (rhs r))) rs)
                (map (fun x => Rxn (int_rx n' (rid x)) (int_side n' (rename_side f (lhs x))) (int_side n' (rename_side f (rhs x)))) rs)).
    { induction rs as [|r rs IH]; intros Hin; simpl; constructor; [|apply IH; intros; apply Hin; right; auto].
      assert (Hrin : In r (nrxns n)) by (apply Hin; left; auto).
      assert (Side : forall l, (forall sc, In sc l -> In (fst sc) (nspecies n)) ->
                rename_side num_map (int_side n l) = int_side n' (rename_side f l)).
      { intros l Hl. unfold rename_side, int_side. rewrite !map_map. apply map_ext_in. intros sc Hsc. simpl.
        rewrite num_map_sp; auto. }
      split; [|split]; simpl.
      - symmetry. apply num_map_rx. apply in_map. auto.
      - rewrite Side; [apply Permutation_refl|]. intros sc I. apply (Hcl r Hrin). apply in_or_app. auto.
      - rewrite Side; [apply Permutation_refl|]. intros sc I. apply (Hcl r Hrin). apply in_or_app. auto. }
    apply G. auto.
Qed.

(** with integer_ids=True clause 2 holds for every injective renaming of the species, also one that maps a species onto a
    reaction id *)
Theorem intids_species_renaming st lab p lab' p' : coeffs_ok n ->
  fst (canon_search (view true st (intids_net n))) = Some (lab, p) ->
  fst (canon_search (view true st (intids_net n'))) = Some (lab', p') ->
  lab' = lab /\ geq (canon_graph (view true st (intids_net n')) p') (canon_graph (view true st (intids_net n)) p).
Proof.
  intros Hc Hb Hb'.
  apply (net_canon_invariant_bip st num_map (intids_net n) (intids_net n') lab p lab' p'); auto.
  - apply intids_net_ok. exact Hs.
  - apply intids_net_ok. exact Hs'.
  - apply coeffs_ok_intids. exact Hc.
  - apply num_map_variant.
  - apply num_map_inj.
Qed.
End Ren.
