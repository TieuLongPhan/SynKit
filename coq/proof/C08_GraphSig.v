(** C08 — NautyCanonicalizer.graph_signature (model: [graph_sig_label], the label of the canonical graph read in the
    order 1..N): it is the minimal label of the search, invariant under isomorphism, and sound: equal labels of two
    graphs make them isomorphic on the covered attributes (C08_Invariant.equal_labels_geq_cov + common form).
    Also here: [label_in_canonical_order] and [label_length], stated for any label format and used by the directed and
    the selection variants. *)
From Coq Require Import String List NArith ZArith Bool Arith Lia Permutation.
From SK Require Import lib.LGraph lib.IRSortKeys lib.IRCore lib.IRSearch lib.StrJoin.
From SK Require Import model.C08_Model proof.C08_Spec proof.C08_Sort proof.C08_Faithful proof.C08_Cov proof.C08_SigFun
                       proof.C08_Render proof.C08_IR proof.C08_Nauty proof.C08_Sound proof.C08_Equiv proof.C08_Invariant.
From SK Require lib.IRInst.
Import ListNotations.
Open Scope string_scope. Open Scope list_scope. Open Scope nat_scope.

Notation ix p := (apply_map (mapping_of p)).

(* ---------------- the canonical graph read in the order 1..N ---------------- *)
Lemma ksorted_seq a n : ksorted (fun v : N => [Z.of_N v]) (map N.of_nat (seq a n)).
Proof.
  revert a. induction n as [|n IH]; intros a; simpl; constructor; auto.
  intros y I. apply in_map_iff in I. destruct I as (k & <- & I). apply in_seq in I.
  simpl. destruct (Z.ltb_spec (Z.of_N (N.of_nat a)) (Z.of_N (N.of_nat k))); auto.
  destruct (Z.ltb_spec (Z.of_N (N.of_nat k)) (Z.of_N (N.of_nat a))); auto. lia.
Qed.
Lemma sort_ids_perm_seq l n : Permutation l (map N.of_nat (seq 1 n)) ->
  sort_by (fun v : N => [Z.of_N v]) l = map N.of_nat (seq 1 n).
Proof.
  intros Hp. apply (ksorted_unique (fun v : N => [Z.of_N v])).
  - apply sort_by_sorted.
  - apply ksorted_seq.
  - eapply perm_trans; [apply sort_by_perm|exact Hp].
  - intros x y _ _ E. inversion E. apply N2Z.inj. auto.
Qed.

(* a label function that is equivariant under injective renumbering, read off the canonical graph in the order 1..N, is
   the label of the graph in the canonical order *)
Lemma label_in_canonical_order (lab : graph -> list N -> str) (g : graph) p : NoDup (node_ids g) ->
  (forall a b x, In (a, b, x) (gedges g) -> In a (node_ids g) /\ In b (node_ids g) /\ a <> b) ->
  Permutation p (node_ids g) ->
  (forall pi, (forall x y : N, pi x = pi y -> x = y) -> lab (relabel pi g) (map pi p) = lab g p) ->
  lab (relabel (ix p) g) (sorted_ids (relabel (ix p) g)) = lab g p.
Proof.
  intros Ng Hend Pp Hlab.
  assert (Np : NoDup p) by (exact (Permutation_NoDup (Permutation_sym Pp) Ng)).
  assert (Es : sorted_ids (relabel (ix p) g) = map (ix p) p).
  { unfold sorted_ids. rewrite (mapping_of_map p Np). apply sort_ids_perm_seq.
    rewrite node_ids_relabel. rewrite <- (mapping_of_map p Np). apply Permutation_map. apply Permutation_sym. exact Pp. }
  rewrite Es.
  set (pi := extend (ix p) (node_ids g)).
  assert (pi_inj : forall x y, pi x = pi y -> x = y) by (apply extend_inj; apply ix_inj_on; auto).
  assert (E1 : relabel (ix p) g = relabel pi g).
  { symmetry. apply relabel_ext_ends; auto. intros x I. apply extend_on. exact I. }
  assert (E2 : map (ix p) p = map pi p).
  { apply map_ext_in. intros x I. symmetry. apply extend_on. apply (Permutation_in _ Pp). exact I. }
  rewrite E1, E2. apply Hlab. exact pi_inj.
Qed.

Theorem graph_sig_label_min g : wf g -> graph_sig_label g = nlabel g (nauty_perm g).
Proof.
  intros Hg. unfold graph_sig_label, canon_nauty.
  apply (label_in_canonical_order nlabel g (nauty_perm g)); [apply Hg|apply Hg|apply nauty_perm_perm; apply Hg|].
  intros pi pi_inj. apply (nlabel_rel pi pi_inj g (relabel pi g) Hg (geq_cov_refl _)).
Qed.

Theorem graph_sig_label_min_both g : wf g ->
  graph_sig_label g = nlabel g (nauty_perm g) /\ nauty_label g = Some (nlabel g (nauty_perm g)).
Proof. intros Hg. split; [apply graph_sig_label_min; auto|apply (nauty_perm_leaf g (proj1 Hg))]. Qed.

(* ---------------- invariance ---------------- *)
Lemma iso_label_eq g h : wf g -> wf h -> iso_cov g h -> nauty_label h = nauty_label g.
Proof.
  intros Hg Hh (f & Hf & Hq0).
  destruct (global_renumbering geq_cov g h f (proj1 (proj2 Hg)) Hf Hq0) as (pi & pi_inj & _ & Hq).
  apply (nauty_label_rel pi pi_inj g h Hg Hq).
Qed.

Theorem graph_sig_invariant g h : wf g -> wf h -> iso_cov g h -> graph_sig_label g = graph_sig_label h.
Proof.
  intros Hg Hh Hi. rewrite !graph_sig_label_min by auto.
  destruct (nauty_perm_leaf g (proj1 Hg)) as [_ Ep]. destruct (nauty_perm_leaf h (proj1 Hh)) as [_ Eq].
  pose proof (iso_label_eq g h Hg Hh Hi) as E. rewrite Ep, Eq in E. inversion E. reflexivity.
Qed.

(* ---------------- the label determines the number of nodes ---------------- *)
Lemma join_app2 sep (xs ys : list str) : xs <> [] -> ys <> [] -> join sep (xs ++ ys) = join sep xs ++ sep :: join sep ys.
Proof.
  intros Hx Hy. rewrite join_app by auto. destruct ys; [congruence|reflexivity].
Qed.
Lemma first_nil_len (A A' B B' : list str) : Forall (fun x => x <> []) A -> Forall (fun x => x <> []) A' ->
  A ++ [] :: B = A' ++ [] :: B' -> length A = length A'.
Proof.
  revert A'. induction A as [|x A IH]; intros [|y A'] HA HA' E; simpl in *; auto.
  - inversion E; subst. inversion HA'; subst. congruence.
  - inversion E; subst. inversion HA; subst. congruence.
  - inversion E; subst. inversion HA; inversion HA'; subst. f_equal. eapply IH; eauto.
Qed.
(* both label formats are a node segment, "||", and a list of separator-free edge fields *)
Lemma label_as_join g p (bits : list str) : p <> [] ->
  node_seg g p ++ lit "||" ++ join 124%N bits
  = join 124%N (map (node_str g) p ++ [] :: (match bits with [] => [[]] | l => l end)).
Proof.
  intros Hp. unfold node_seg. change (lit "||") with [124%N; 124%N].
  rewrite join_app2; [|destruct p; [congruence|discriminate]|discriminate].
  f_equal. cbn [app]. f_equal.
  destruct bits as [|b l]; [reflexivity|].
  change (join 124%N ([] :: b :: l)) with ([] ++ 124%N :: join 124%N (b :: l)). reflexivity.
Qed.
Lemma node_seg_cons_length k v r : 3 <= length (node_seg k (v :: r)).
Proof.
  unfold node_seg. simpl. rewrite node_str_cov. unfold NS, ncov. destruct (attr_of k v).
  destruct (map (node_str k) r); simpl; repeat (rewrite app_length; simpl); lia.
Qed.

Lemma label_length g h p q (bg bh : list str) :
  (forall v, In v p -> el_ok (el (attr_of g v))) -> (forall v, In v q -> el_ok (el (attr_of h v))) ->
  Forall (nosep 124%N) bg -> Forall (nosep 124%N) bh -> (p = [] -> bg = []) -> (q = [] -> bh = []) ->
  node_seg g p ++ lit "||" ++ join 124%N bg = node_seg h q ++ lit "||" ++ join 124%N bh -> length p = length q.
Proof.
  intros Hp Hq Fg Fh Ng Nh E.
  destruct p as [|p0 p], q as [|q0 q]; auto.
  - exfalso. rewrite (Ng eq_refl) in E. pose proof (node_seg_cons_length h q0 q) as L.
    set (s := node_seg h (q0 :: q)) in *. apply (f_equal (@length N)) in E. rewrite !app_length in E. simpl in E. lia.
  - exfalso. rewrite (Nh eq_refl) in E. pose proof (node_seg_cons_length g p0 p) as L.
    set (s := node_seg g (p0 :: p)) in *. apply (f_equal (@length N)) in E. rewrite !app_length in E. simpl in E. lia.
  - rewrite !label_as_join in E by discriminate.
    assert (NSg : forall k r, (forall v, In v r -> el_ok (el (attr_of k v))) ->
              Forall (nosep 124%N) (map (node_str k) r) /\ Forall (fun x => x <> []) (map (node_str k) r)).
    { intros k r Hr. split; apply Forall_forall; intros x I; apply in_map_iff in I; destruct I as (v & <- & I); rewrite node_str_cov.
      - apply NS_nosep. unfold ncov. cbn [fst]. apply Hr. exact I.
      - unfold NS, ncov. destruct (attr_of k v). simpl. intro E0. apply (f_equal (@length N)) in E0. rewrite app_length in E0. simpl in E0. lia. }
    assert (EBg : forall bits, Forall (nosep 124%N) bits -> Forall (nosep 124%N) (match bits with [] => [[]] | l => l end)).
    { intros [|b l] F; [repeat constructor; intros []|exact F]. }
    destruct (NSg g (p0 :: p) Hp) as [A1 A2]. destruct (NSg h (q0 :: q) Hq) as [B1 B2].
    apply join_inj in E.
    + apply first_nil_len in E; auto. rewrite !map_length in E. exact E.
    + apply Forall_app. split; auto. constructor; [intros []|apply EBg; exact Fg].
    + apply Forall_app. split; auto. constructor; [intros []|apply EBg; exact Fh].
    + discriminate.
    + discriminate.
Qed.

Lemma nlabel_length g h p q : (forall v, In v p -> el_ok (el (attr_of g v))) -> (forall v, In v q -> el_ok (el (attr_of h v))) ->
  nlabel g p = nlabel h q -> length p = length q.
Proof.
  intros Hp Hq. apply label_length; auto; try (intros ->; reflexivity);
    apply Forall_forall; intros x I; apply in_map_iff in I; destruct I as (ab & <- & _); rewrite edge_bit_cov; apply EB_nosep.
Qed.

Theorem equal_labels_iso g h p q : wf g -> wf h -> els_ok g -> els_ok h ->
  Permutation p (node_ids g) -> Permutation q (node_ids h) -> nlabel g p = nlabel h q -> iso_cov g h.
Proof.
  intros Hg Hh Eg Eh Pp Pq E.
  assert (Hl : length p = length q).
  { apply (nlabel_length g h); auto; intros v _; apply attr_el_ok; auto. }
  apply (common_form_iso g h (ix p) (ix q)); auto; try (apply ix_inj_on; auto; apply Hg || apply Hh).
  apply equal_labels_geq_cov; auto.
Qed.

Theorem graph_sig_sound g h : wf g -> wf h -> els_ok g -> els_ok h -> graph_sig_label g = graph_sig_label h -> iso_cov g h.
Proof.
  intros Hg Hh Eg Eh E. rewrite !graph_sig_label_min in E by auto.
  apply (equal_labels_iso g h (nauty_perm g) (nauty_perm h)); auto; apply nauty_perm_perm; [apply Hg|apply Hh].
Qed.

Theorem graph_signature_spec (D : Type) (digest : str -> D) g h : wf g -> wf h -> els_ok g -> els_ok h ->
  (digest (graph_sig_label g) = digest (graph_sig_label h) -> graph_sig_label g = graph_sig_label h) ->
  (digest (graph_sig_label g) = digest (graph_sig_label h) <-> iso_cov g h).
Proof.
  intros Hg Hh Eg Eh Hd. split.
  - intros E. apply graph_sig_sound; auto.
  - intros Hi. f_equal. apply graph_sig_invariant; auto.
Qed.

(* non-vacuity: forward and reverse reaction centre on a symmetric 4-ring (tuple-valued orders) are told apart,
   a renumbered copy is not *)
Definition rc (a b c d : N) (x y x' y' : Z) : graph :=
  LG [(a, NA [67%N] false 0 0 None); (b, NA [67%N] false 0 0 None); (c, NA [67%N] false 0 0 None); (d, NA [67%N] false 0 0 None)]
     [(a, b, EA3 x None (Some y)); (b, c, EA3 x' None (Some y')); (c, d, EA3 x None (Some y)); (d, a, EA3 x' None (Some y'))].
(* metathesis-like ring (2,0),(0,2),(2,0),(0,2): a renumbered, re-oriented copy gets the same label;
   one-way ring (2,1)x4 against its reverse (1,2)x4: different labels and different signatures *)
Example gs_ex : graph_sig_label (rc 1 2 3 4 4 0 0 4) = graph_sig_label (rc 7 3 9 5 0 4 4 0)
                /\ graph_sig_label (rc 1 2 3 4 4 2 4 2) <> graph_sig_label (rc 1 2 3 4 2 4 2 4)
                /\ serialise (canon_nauty (rc 1 2 3 4 4 2 4 2)) <> serialise (canon_nauty (rc 1 2 3 4 2 4 2 4)).
Proof.
  set (A := rc 1 2 3 4 4 2 4 2). set (B := rc 1 2 3 4 2 4 2 4).
  assert (WA : wf A) by (apply wfb_sound; reflexivity). assert (WB : wf B) by (apply wfb_sound; reflexivity).
  assert (L : graph_sig_label A <> graph_sig_label B).
  { rewrite !graph_sig_label_min by assumption. vm_compute. discriminate. }
  split; [|split; [exact L|]].
  - (* the second ring is the first turned by one position: 1, 2, 3, 4 |-> 3, 9, 5, 7 *)
    apply graph_sig_invariant; try (apply wfb_sound; reflexivity).
    exists (fun x => nth (N.to_nat x) [0; 3; 9; 5; 7]%N 0%N). split.
    + intros x y Hx Hy. simpl in Hx, Hy.
      destruct Hx as [<-|[<-|[<-|[<-|[]]]]], Hy as [<-|[<-|[<-|[<-|[]]]]]; vm_compute; intros E; try reflexivity; discriminate.
    + split; vm_compute; apply Permutation_sym, (Permutation_cons_app [_; _; _] []), Permutation_refl.
  - (* different labels: not isomorphic, hence different signatures *)
    intro E. apply L. apply graph_sig_invariant; auto.
    refine (sound_faithful A B _ _ WA WB _ _ (faithful_nauty A (proj1 WA)) (faithful_nauty B (proj1 WB)) E);
      apply els_okb_sound; reflexivity.
Qed.

Print Assumptions graph_signature_spec.
