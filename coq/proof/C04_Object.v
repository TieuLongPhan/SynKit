(** C04 — SynReactor as an object (model/C04_Reactor.v): the caches are coherent.  Whatever attributes are read, how often
    and in which order, every read returns what the same read returns on a fresh reactor — provided _explicit_h does
    not raise; if it does, the first read of its_list raises and every later read returns the half-processed list that
    stayed in the cache ([stale_after_crash]: exact description of that state).
    Byte-string lemmas for reverse_reaction / split(">>"). *)
From Coq Require Import List NArith ZArith Bool.
From SK Require Import lib.Tok lib.LGraph model.C06_Model model.C11_Model model.C03_Model model.C04_Model model.C04_Reactor.
Import ListNotations.

(** * byte strings *)
Definition no_gt (s : bytes) : Prop := forall c, In c s -> c <> GT.

Lemma split_no_gt s : no_gt s -> forall cur, split_gg s cur = [rev cur ++ s].
Proof.
  induction s as [|a r IH]; intros H cur; simpl.
  - rewrite app_nil_r. reflexivity.
  - assert (Ha : N.eqb a GT = false) by (apply N.eqb_neq; apply H; left; reflexivity).
    assert (Hr : no_gt r) by (intros c I; apply H; right; exact I).
    destruct r as [|b r'].
    + simpl. reflexivity.
    + rewrite Ha. simpl andb. rewrite (IH Hr (a :: cur)). simpl. rewrite <- app_assoc. reflexivity.
Qed.

Lemma split_arrow r p : no_gt r -> forall cur, split_gg (r ++ arrow ++ p) cur = (rev cur ++ r) :: split_gg p [].
Proof.
  induction r as [|a r IH]; intros H cur.
  - simpl. rewrite app_nil_r. reflexivity.
  - assert (Ha : N.eqb a GT = false) by (apply N.eqb_neq; apply H; left; reflexivity).
    assert (Hr : no_gt r) by (intros c I; apply H; right; exact I).
    change ((a :: r) ++ arrow ++ p) with (a :: (r ++ arrow ++ p)).
    assert (E : exists b t, r ++ arrow ++ p = b :: t).
    { destruct r as [|b t]; simpl; eauto. }
    destruct E as (b & t & E). cbn [split_gg]. rewrite E. rewrite Ha. cbn [andb]. rewrite <- E.
    rewrite (IH Hr (a :: cur)). simpl. rewrite <- app_assoc. reflexivity.
Qed.

Lemma split_reaction r p : no_gt r -> no_gt p -> split_gg (r ++ arrow ++ p) [] = [r; p].
Proof. intros Hr Hp. rewrite (split_arrow r p Hr []). simpl. rewrite (split_no_gt p Hp []). reflexivity. Qed.

(** reverse_reaction swaps the sides of 'r>>p' (SMILES contain no '>'), and twice is the identity *)
Theorem reverse_reaction_swaps r p : no_gt r -> no_gt p -> reverse_reaction (r ++ arrow ++ p) = p ++ arrow ++ r.
Proof. intros Hr Hp. unfold reverse_reaction. rewrite (split_reaction r p Hr Hp). reflexivity. Qed.
Theorem reverse_reaction_involutive r p : no_gt r -> no_gt p ->
  reverse_reaction (reverse_reaction (r ++ arrow ++ p)) = r ++ arrow ++ p.
Proof. intros Hr Hp. rewrite (reverse_reaction_swaps r p Hr Hp). apply reverse_reaction_swaps; assumption. Qed.
(** smiles_list takes the product side *)
Theorem last_piece_product r p : no_gt r -> no_gt p -> last_piece (r ++ arrow ++ p) = p.
Proof. intros Hr Hp. unfold last_piece. rewrite (split_reaction r p Hr Hp). reflexivity. Qed.

Theorem reverse_reaction_all r p : no_gt r -> no_gt p ->
  reverse_reaction (r ++ arrow ++ p) = p ++ arrow ++ r /\
  reverse_reaction (reverse_reaction (r ++ arrow ++ p)) = r ++ arrow ++ p /\
  last_piece (r ++ arrow ++ p) = p.
Proof.
  intros Hr Hp. split; [exact (reverse_reaction_swaps r p Hr Hp)|].
  split; [exact (reverse_reaction_involutive r p Hr Hp)|exact (last_piece_product r p Hr Hp)].
Qed.

(** * the caches *)
Section Coherent.
  Variable engine : sarg -> option N -> bool -> C06_Model.graph -> C06_Model.graph -> outcome.
  Variable rematch : nat -> hostg -> molg -> list C03_Model.mapping.
  Variable ser : nat -> its -> option bytes * option bytes.
  Variable o : ropts.
  Variable host : hostg.
  Variable rule : triple.
  Let l := snd (fst rule).

  Notation rd_maps := (read_mappings engine o host rule).
  Notation rd_its := (read_its engine rematch o host rule).
  Notation rd_smarts := (read_smarts engine rematch ser o host rule).
  Notation rd := (read engine rematch ser o host rule).
  Notation maps_val := (compute_mappings engine o host rule).
  Notation gluedg := (glue_graph rematch host rule).

  Definition flag_val : bool := has_XH l.
  Notation glued_val := (C04_Reactor.glued_val rematch host rule).
  Notation its_stored := (C04_Reactor.its_stored rematch o host rule).
  Notation crashed := (C04_Reactor.crashed rematch o host rule).

  Definition coh (st : rstate) : Prop :=
    (s_flag st = false \/ s_flag st = flag_val) /\
    (forall ms, s_maps st = Some ms -> maps_val = Some ms /\ s_flag st = flag_val) /\
    (forall gs, s_its st = Some gs -> exists ms, s_maps st = Some ms /\ gs = its_stored ms) /\
    (forall ss, s_smarts st = Some ss -> exists gs, s_its st = Some gs /\ ss = smarts_of ser o gs).

  Lemma coh_fresh : coh fresh.
  Proof. unfold coh, fresh; simpl. split; [left; reflexivity|]. split; [intros ? E; discriminate|]. split; intros ? E; discriminate. Qed.

  Lemma flag_raise st : s_flag st = false \/ s_flag st = flag_val -> s_flag st || has_XH l = flag_val.
  Proof. unfold flag_val. intros [E|E]; rewrite E; [reflexivity|]. destruct (has_XH l); reflexivity. Qed.

  (** reading mappings *)
  Lemma rd_maps_spec st : coh st ->
    fst (rd_maps st) = maps_val /\ coh (snd (rd_maps st)) /\
    s_its (snd (rd_maps st)) = s_its st /\ s_smarts (snd (rd_maps st)) = s_smarts st /\
    (forall ms, maps_val = Some ms -> s_maps (snd (rd_maps st)) = Some ms /\ s_flag (snd (rd_maps st)) = flag_val).
  Proof.
    intros (C1 & C2 & C3 & C4). unfold read_mappings. fold l.
    destruct (s_maps st) as [ms|] eqn:Em.
    - destruct (C2 ms eq_refl) as [E F]. simpl. split; [symmetry; exact E|]. split; [unfold coh; rewrite Em; exact (conj C1 (conj C2 (conj C3 C4)))|].
      split; [reflexivity|]. split; [reflexivity|]. intros ms' E'. rewrite E in E'. inversion E'; subst. rewrite Em. auto.
    - pose proof (flag_raise st C1) as FR.
      assert (N3 : s_its st = None).
      { destruct (s_its st) as [gs|] eqn:Ei; [|reflexivity]. destruct (C3 gs eq_refl) as (ms & E & _). discriminate E. }
      assert (N4 : s_smarts st = None).
      { destruct (s_smarts st) as [ss|] eqn:Es; [|reflexivity]. destruct (C4 ss eq_refl) as (gs & E & _). rewrite N3 in E. discriminate. }
      destruct maps_val as [ms|] eqn:Ev; simpl.
      + split; [reflexivity|]. split.
        { unfold coh; simpl. split; [right; exact FR|]. split; [intros ms' E'; inversion E'; subst; auto|].
          rewrite N3, N4. split; intros ? E'; discriminate. }
        split; [reflexivity|]. split; [reflexivity|]. intros ms' E'. inversion E'; subst. auto.
      + split; [reflexivity|]. split.
        { unfold coh; simpl. split; [right; exact FR|]. split; [intros ms' E'; discriminate|].
          rewrite N3, N4. split; intros ? E'; discriminate. }
        split; [reflexivity|]. split; [reflexivity|]. intros ms' E'. discriminate.
  Qed.

  (** the value a fresh reactor returns for its_list *)
  Definition its_val : option (list its) :=
    match maps_val with
    | None => None
    | Some ms => if crashed ms then None else Some (its_stored ms)
    end.

  Lemma rd_its_spec st : coh st ->
    coh (snd (rd_its st)) /\ s_smarts (snd (rd_its st)) = s_smarts st /\
    (s_its st = None -> fst (rd_its st) = its_val) /\
    (forall gs, s_its st = Some gs -> fst (rd_its st) = Some gs /\ snd (rd_its st) = st) /\
    (forall ms, maps_val = Some ms -> s_its (snd (rd_its st)) = Some (its_stored ms)).
  Proof.
    intros C. pose proof C as (C1 & C2 & C3 & C4). unfold read_its.
    destruct (s_its st) as [gs|] eqn:Ei.
    - simpl. split; [exact C|]. split; [reflexivity|]. split; [discriminate|]. split; [intros gs' E; inversion E; auto|].
      intros ms Ev. destruct (C3 gs eq_refl) as (ms' & Em & ->). destruct (C2 ms' Em) as [Ev' _]. rewrite Ev in Ev'. inversion Ev'. exact Ei.
    - destruct (rd_maps_spec st C) as (V & Cm & Ki & Ks & Km).
      destruct (rd_maps st) as [om st1] eqn:Er. simpl in V, Cm, Ki, Ks, Km. subst om.
      unfold its_val. destruct maps_val as [ms|] eqn:Ev.
      + destruct (Km ms eq_refl) as [Em Ef]. rewrite Ef. change (concat (mapi (gluedg flag_val) ms)) with (glued_val ms).
        pose proof Cm as (D1 & D2 & D3 & D4).
        assert (Hs4 : s_smarts st1 = None).
        { rewrite Ks. destruct (s_smarts st) as [ss|] eqn:Es; [|reflexivity]. destruct (C4 ss eq_refl) as (gs & E & _). discriminate E. }
        assert (K1 : flag_val = false \/ flag_val = flag_val) by (right; reflexivity).
        assert (K2 : forall ms0, s_maps st1 = Some ms0 -> maps_val = Some ms0 /\ flag_val = flag_val).
        { intros ms0 E0. split; [exact (proj1 (D2 ms0 E0))|reflexivity]. }
        unfold crashed, its_stored. destruct (o_explicit_h o) eqn:Eo.
        * destruct (explicit_all (glued_val ms)) as [gs c] eqn:Ex. simpl.
          split.
          { unfold coh; simpl. split; [exact K1|]. split; [exact K2|]. split.
            - intros gs' E'. inversion E'; subst. exists ms. split; [exact Em|]. unfold its_stored. rewrite Eo, Ex. reflexivity.
            - rewrite Hs4. intros ? E'; discriminate. }
          split; [rewrite <- Ks; reflexivity|].
          split; [intros _; destruct c; reflexivity|]. split; [discriminate|].
          intros ms' E'. inversion E'; subst. rewrite Ex. reflexivity.
        * simpl. split.
          { unfold coh; simpl. split; [exact K1|]. split; [exact K2|]. split.
            - intros gs' E'. inversion E'; subst. exists ms. split; [exact Em|]. unfold its_stored. rewrite Eo. reflexivity.
            - rewrite Hs4. intros ? E'; discriminate. }
          split; [rewrite <- Ks; reflexivity|].
          split; [intros _; reflexivity|]. split; [discriminate|].
          intros ms' E'. inversion E'; subst. reflexivity.
      + simpl. split; [exact Cm|]. split; [exact Ks|]. split; [intros _; reflexivity|]. split; [discriminate|]. discriminate.
  Qed.

  Definition smarts_val : option (list bytes) := option_map (smarts_of ser o) its_val.

  (** * no StopIteration: every read returns the fresh value *)
  Section NoCrash.
    Hypothesis NC : forall ms, maps_val = Some ms -> crashed ms = false.

    Lemma its_val_nc ms : maps_val = Some ms -> its_val = Some (its_stored ms).
    Proof. intros E. unfold its_val. rewrite E, (NC ms E). reflexivity. Qed.

    Lemma rd_its_value st : coh st -> fst (rd_its st) = its_val.
    Proof.
      intros C. destruct (rd_its_spec st C) as (_ & _ & V0 & V1 & _).
      destruct (s_its st) as [gs|] eqn:Ei; [|exact (V0 eq_refl)].
      destruct (V1 gs eq_refl) as [-> _]. destruct C as (_ & C2 & C3 & _).
      destruct (C3 gs Ei) as (ms & Em & ->). destruct (C2 ms Em) as [Ev _]. symmetry. exact (its_val_nc ms Ev).
    Qed.

    Lemma rd_smarts_spec st : coh st -> fst (rd_smarts st) = smarts_val /\ coh (snd (rd_smarts st)).
    Proof.
      intros C. pose proof C as (C1 & C2 & C3 & C4). unfold read_smarts.
      destruct (s_smarts st) as [ss|] eqn:Es.
      - simpl. split; [|exact C]. destruct (C4 ss eq_refl) as (gs & Ei & ->). destruct (C3 gs Ei) as (ms & Em & ->).
        destruct (C2 ms Em) as [Ev _]. unfold smarts_val. rewrite (its_val_nc ms Ev). reflexivity.
      - pose proof (rd_its_value st C) as V. destruct (rd_its_spec st C) as (Ci & Ks & _ & _ & Ki).
        destruct (rd_its st) as [og st1] eqn:Er. simpl in V, Ci, Ks, Ki. subst og. unfold smarts_val.
        destruct its_val as [gs|] eqn:Ev; simpl.
        + split; [reflexivity|]. pose proof Ci as (D1 & D2 & D3 & D4). unfold coh; simpl.
          split; [exact D1|]. split; [exact D2|]. split; [exact D3|].
          intros ss E'. inversion E'; subst. exists gs. split; [|reflexivity].
          unfold its_val in Ev. destruct maps_val as [ms|] eqn:Em; [|discriminate].
          rewrite (Ki ms eq_refl). rewrite (NC ms eq_refl) in Ev. exact Ev.
        + split; [reflexivity|exact Ci].
    Qed.

    Lemma read_value a st : coh st -> fst (rd a st) = fst (rd a fresh) /\ coh (snd (rd a st)).
    Proof.
      intros C.
      pose proof (rd_maps_spec st C) as (M1 & M2 & _). pose proof (rd_maps_spec fresh coh_fresh) as (F1 & _).
      pose proof (rd_its_value st C) as I1. pose proof (rd_its_value fresh coh_fresh) as I2.
      pose proof (rd_its_spec st C) as (I3 & _).
      pose proof (rd_smarts_spec st C) as (S1 & S2). pose proof (rd_smarts_spec fresh coh_fresh) as (S3 & _).
      destruct a; unfold read.
      - destruct (rd_maps st) as [v st']. destruct (rd_maps fresh) as [v0 st0]. simpl in *. subst. auto.
      - destruct (rd_its st) as [v st']. destruct (rd_its fresh) as [v0 st0]. simpl in *. subst. auto.
      - destruct (rd_smarts st) as [v st']. destruct (rd_smarts fresh) as [v0 st0]. simpl in *. subst. auto.
      - destruct (rd_smarts st) as [v st']. destruct (rd_smarts fresh) as [v0 st0]. simpl in *. subst. auto.
      - destruct (rd_maps st) as [v st']. destruct (rd_maps fresh) as [v0 st0]. simpl in *. subst. auto.
      - destruct (rd_smarts st) as [v st']. destruct (rd_smarts fresh) as [v0 st0]. simpl in *. subst. auto.
    Qed.

    (** any script of reads, from any reachable state: the list of answers is the list of fresh answers *)
    Theorem script_coherent s : forall st, coh st ->
      fst (run_script engine rematch ser o host rule s st) = map (fun a => fst (rd a fresh)) s /\
      coh (snd (run_script engine rematch ser o host rule s st)).
    Proof.
      induction s as [|a r IH]; intros st C; simpl; [auto|].
      destruct (read_value a st C) as [V C1]. destruct (rd a st) as [v st1]. simpl in V, C1.
      destruct (IH st1 C1) as [Vs C2]. destruct (run_script engine rematch ser o host rule r st1) as [vs st2]. simpl in *.
      subst. auto.
    Qed.
    Theorem reads_coherent s :
      fst (run_script engine rematch ser o host rule s fresh) = map (fun a => fst (rd a fresh)) s.
    Proof. exact (proj1 (script_coherent s fresh coh_fresh)). Qed.
  End NoCrash.

  (** * _explicit_h raises on some glued ITS: the first read of its_list raises, the list processed up to the failing
      element stays in the cache, and every later read of its_list / smarts_list is served from it without raising *)
  Theorem stale_after_crash ms : maps_val = Some ms -> crashed ms = true ->
    fst (rd_its fresh) = None /\
    let st1 := snd (rd_its fresh) in
    rd_its st1 = (Some (its_stored ms), st1) /\ fst (rd_smarts st1) = Some (smarts_of ser o (its_stored ms)).
  Proof.
    intros Ev Ec. destruct (rd_its_spec fresh coh_fresh) as (C1 & Ks & V0 & _ & Ki).
    specialize (V0 eq_refl). specialize (Ki ms Ev). unfold its_val in V0. rewrite Ev, Ec in V0.
    split; [exact V0|]. cbv zeta. set (st1 := snd (rd_its fresh)) in *.
    assert (R : rd_its st1 = (Some (its_stored ms), st1)) by (unfold read_its; rewrite Ki; reflexivity).
    split; [exact R|]. unfold read_smarts. replace (s_smarts st1) with (@None (list bytes)) by (rewrite Ks; reflexivity).
    rewrite R. reflexivity.
  Qed.
End Coherent.
