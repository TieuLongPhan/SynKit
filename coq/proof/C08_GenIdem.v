(** C08 — the attribute-sort back-end is idempotent: canonicalising a generic canonical graph changes nothing on the
    covered attributes, so CanonicalGraph's hash (signature of the twin) equals SynGraph's signature (generic). *)
From Coq Require Import List NArith ZArith Bool Arith Lia Permutation.
From SK Require Import lib.LGraph lib.IRSortKeys lib.IRCore lib.StrJoin.
From SK Require Import model.C08_Model proof.C08_Spec proof.C08_Sort proof.C08_Faithful proof.C08_Cov proof.C08_SigFun
                       proof.C08_Render proof.C08_Nauty proof.C08_Sound proof.C08_Equiv proof.C08_Invariant proof.C08_Value.
From SK Require lib.IRInst.
Import ListNotations.

(* keys of the form enc_str s ++ [c; a; h] are prefix-free: appending a tie-breaker never changes a strict comparison *)
Lemma lexleb_cons_eq x a b : lexleb (x :: a) (x :: b) = lexleb a b.
Proof. simpl. rewrite Z.ltb_irrefl. reflexivity. Qed.

Lemma last_cmp x y x' y' : lexleb [x] [y] = true -> (x <= y -> x' <= y')%Z -> lexleb [x'] [y'] = true.
Proof.
  simpl. destruct (Z.ltb_spec x y), (Z.ltb_spec y x), (Z.ltb_spec x' y'), (Z.ltb_spec y' x'); auto; try discriminate; lia.
Qed.
Lemma tail_cmp (t1 : list Z) : forall t2 x y x' y', length t1 = length t2 ->
  lexleb (t1 ++ [x]) (t2 ++ [y]) = true -> (x <= y -> x' <= y')%Z -> lexleb (t1 ++ [x']) (t2 ++ [y']) = true.
Proof.
  induction t1 as [|a t1 IH]; intros [|b t2] x y x' y' Hl H Hxy; try discriminate.
  - cbn [app] in *. eapply last_cmp; eauto.
  - cbn [app] in *. simpl in *. destruct (Z.ltb a b); auto. destruct (Z.ltb b a); auto. eapply IH; eauto.
Qed.
Lemma enc_tail_cmp (s1 : str) : forall (s2 : str) (t1 t2 : list Z) x y x' y', length t1 = length t2 ->
  lexleb ((enc_str s1 ++ t1) ++ [x]) ((enc_str s2 ++ t2) ++ [y]) = true -> (x <= y -> x' <= y')%Z ->
  lexleb ((enc_str s1 ++ t1) ++ [x']) ((enc_str s2 ++ t2) ++ [y']) = true.
Proof.
  unfold enc_str. induction s1 as [|c1 s1 IH]; intros [|c2 s2] t1 t2 x y x' y' Hl H Hxy; cbn [map app] in *.
  - rewrite lexleb_cons_eq in *. eapply tail_cmp; eauto.
  - simpl. destruct (Z.ltb_spec 0 (Z.of_N c2 + 1)); auto. lia.
  - simpl in H. destruct (Z.ltb_spec (Z.of_N c1 + 1) 0); [lia|]. destruct (Z.ltb_spec 0 (Z.of_N c1 + 1)); [discriminate|lia].
  - simpl in *. destruct (Z.ltb (Z.of_N c1 + 1) (Z.of_N c2 + 1)); auto.
    destruct (Z.ltb (Z.of_N c2 + 1) (Z.of_N c1 + 1)); auto. eapply IH; eauto.
Qed.

Lemma NK_shape n e c a h : NK (n, (e, c, a, h)) = (enc_str e ++ [c; b2z a; h]) ++ [Z.of_N n].
Proof. unfold NK. rewrite app_assoc. reflexivity. Qed.

Lemma NK_renum (p q : N * (list N * Z * bool * Z)) (i j : N) :
  lexleb (NK p) (NK q) = true -> (i < j)%N -> lexleb (NK (i, snd p)) (NK (j, snd q)) = true.
Proof.
  destruct p as [n [[[e c] a] h]], q as [m [[[e' c'] a'] h']]. cbn [snd]. rewrite !NK_shape. intros H Hij.
  eapply enc_tail_cmp; [reflexivity|exact H|]. intros _. lia.
Qed.

Lemma in_combine_seq {B} (l : list B) : forall a k v, In (k, v) (combine (map N.of_nat (seq a (length l))) l) ->
  (N.of_nat a <= k)%N /\ In v l.
Proof.
  induction l as [|x l IH]; intros a k v I; simpl in *; [contradiction|].
  destruct I as [E|I]; [inversion E; subst; split; [lia|auto]|].
  destruct (IH (S a) k v I) as [H1 H2]. split; [lia|auto].
Qed.

Lemma renum_sorted (L : list (N * (list N * Z * bool * Z))) : ksorted NK L ->
  forall a, ksorted NK (combine (map N.of_nat (seq a (length L))) (map snd L)).
Proof.
  induction 1 as [|x L Hs IH Hx]; intros a; simpl; constructor.
  - apply IH.
  - intros [k v] I. rewrite <- (map_length snd L) in I. apply in_combine_seq in I. destruct I as [Hk Iv].
    apply in_map_iff in Iv. destruct Iv as (y & <- & Iy).
    apply (NK_renum x y (N.of_nat a) k (Hx y Iy)). lia.
Qed.

Lemma map_fst_combine {A B} (l : list A) (m : list B) : length l = length m -> map fst (combine l m) = l.
Proof. revert m. induction l as [|x l IH]; intros [|y m] H; simpl in *; try discriminate; auto. f_equal. apply IH. lia. Qed.
Lemma map_snd_combine {A B} (l : list A) (m : list B) : length l = length m -> map snd (combine l m) = m.
Proof. revert m. induction l as [|x l IH]; intros [|y m] H; simpl in *; try discriminate; auto. f_equal. apply IH. lia. Qed.

(* the covered node list of the generic canonical graph: the sorted covered nodes renumbered 1..N *)
Lemma cov_nodes_canon_generic g : NoDup (node_ids g) ->
  cov_nodes (canon_generic g) =
  combine (map N.of_nat (seq 1 (length (gnodes g)))) (map snd (sort_by NK (cov_nodes g))).
Proof.
  intros Hnd. unfold canon_generic, rebuild, cov_nodes at 1. cbv zeta. cbn [gnodes]. rewrite map_map.
  set (order := map fst (sort_by nkey_id (gnodes g))).
  assert (Ho : order = map fst (sort_by NK (cov_nodes g))) by apply generic_order_cov.
  assert (Hp : Permutation order (node_ids g)) by apply generic_order_perm.
  assert (Hn : NoDup order) by (exact (Permutation_NoDup (Permutation_sym Hp) Hnd)).
  assert (Hl : length order = length (gnodes g)) by (rewrite (Permutation_length Hp); unfold node_ids; apply map_length).
  (* split the mapped list into its two projections *)
  assert (E : map (fun x : N => covn (apply_map (mapping_of order) x, attr_of g x)) order
            = combine (map (apply_map (mapping_of order)) order) (map (fun x => ncov (attr_of g x)) order)).
  { clear. generalize (apply_map (mapping_of order)). intros f. induction order; simpl; auto. f_equal. auto. }
  rewrite E, (mapping_of_map order Hn), Hl. f_equal.
  rewrite Ho, map_map. apply map_ext_in. intros c I.
  apply (proj1 (sort_by_in NK _ _)) in I. rewrite ncov_attr_cov.
  destruct c as [k v]. cbn [fst snd].
  rewrite (assoc_nodup_in k (cov_nodes g) v); auto. rewrite <- node_ids_cov. exact Hnd.
Qed.

Theorem generic_idempotent g : wf g ->
  geq_cov (canon_generic (canon_generic g)) (canon_generic g) /\ ser_generic (canon_generic g) = ser_generic g.
Proof.
  intros Hg. pose proof (proj1 Hg) as Hnd.
  pose proof (faithful_generic g Hnd) as Fg. pose proof (wf_faithful _ _ Hg Fg) as Wg.
  set (cg := canon_generic g) in *. set (n := length (gnodes g)).
  set (ids := map N.of_nat (seq 1 n)).
  assert (Ecov : cov_nodes cg = combine ids (map snd (sort_by NK (cov_nodes g)))) by (apply cov_nodes_canon_generic; auto).
  assert (Hlen : length (sort_by NK (cov_nodes g)) = n).
  { rewrite sort_by_length. unfold cov_nodes. apply map_length. }
  assert (Hs : ksorted NK (cov_nodes cg)).
  { rewrite Ecov. unfold ids. rewrite <- Hlen. apply renum_sorted. apply sort_by_sorted. }
  assert (Eord : map fst (sort_by nkey_id (gnodes cg)) = ids).
  { rewrite generic_order_cov.
    assert (Es : sort_by NK (cov_nodes cg) = cov_nodes cg).
    { apply (ksorted_unique NK); auto; [apply sort_by_sorted|apply sort_by_perm|].
      intros x y Hx Hy. apply (NK_inj_ids (cov_nodes cg)).
      - rewrite <- node_ids_cov. apply Wg.
      - apply (proj1 (sort_by_in NK _ _)). exact Hx.
      - apply (proj1 (sort_by_in NK _ _)). exact Hy. }
    rewrite Es, Ecov. apply map_fst_combine. unfold ids. rewrite !map_length, seq_length. rewrite Hlen. reflexivity. }
  assert (Hids : node_ids cg = ids).
  { rewrite node_ids_cov, Ecov. apply map_fst_combine. unfold ids. rewrite !map_length, seq_length, Hlen. reflexivity. }
  assert (C : geq_cov (canon_generic cg) cg).
  { unfold canon_generic at 1. rewrite Eord.
    assert (Hp : Permutation ids (node_ids cg)) by (rewrite Hids; apply Permutation_refl).
    destruct (rebuild_geq_cov cg ids (proj1 Wg) Hp) as [Hi Hr].
    eapply geq_cov_trans; [exact Hr|].
    rewrite (relabel_id_on _ cg Wg); [apply geq_cov_refl|].
    intros x Hx. rewrite Hids in Hx.
    assert (Nd : NoDup ids) by (rewrite <- Hids; apply Wg).
    pose proof (mapping_of_map ids Nd) as Hm.
    assert (Hl2 : map N.of_nat (seq 1 (length ids)) = ids) by (unfold ids; rewrite map_length, seq_length; reflexivity).
    rewrite Hl2 in Hm.
    clear -Hm Hx. induction ids as [|y l IH]; [contradiction|].
    (* pointwise from the map equation *)
    revert Hm Hx. generalize (apply_map (mapping_of (y :: l))). intros f Hm Hx.
    assert (Hall : forall l', map f l' = l' -> forall z, In z l' -> f z = z).
    { induction l' as [|w l' IH']; intros E z I; [contradiction|]. simpl in E. injection E as E1 E2.
      destruct I as [<-|I]; [exact E1|apply IH'; auto]. }
    apply (Hall (y :: l)); auto. }
  split; [exact C|].
  unfold ser_generic. apply serialise_geq_cov; [|exact C].
  eapply simple_geq_cov; [apply geq_cov_sym; exact C|apply wf_simple; exact Wg].
Qed.
Print Assumptions generic_idempotent.
