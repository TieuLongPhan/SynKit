(** C07 — the WL-1 colour-histogram containment filter is a necessary condition for an isomorphism between graphs of
    equal order (the only case in which _pre_check applies it); with the counts of C07_Filters.v: _pre_check
    is necessary.  Stdlib lists. *)
From Coq Require Import List NArith Bool Arith Lia Permutation.
From SK Require Import lib.LGraph lib.C01_GraphLemmas model.C07_Model proof.C07_Spec proof.C07_Filters proof.C07_History proof.C07_Main.
Import ListNotations.

Lemma opt_eqb_sym x y : opt_eqb x y = opt_eqb y x.
Proof. destruct x, y; simpl; auto. apply N.eqb_sym. Qed.

Lemma opt_eqb_rfl x : opt_eqb x x = true.
Proof. apply opt_eqb_eq. reflexivity. Qed.

Lemma bl_eqb_eq a b : bl_eqb a b = true <-> a = b.
Proof. apply (list_eqb_eq opt_eqb); [apply opt_eqb_eq | intros [|] [|]; reflexivity]. Qed.

Lemma bll_eqb_eq a b : bll_eqb a b = true <-> a = b.
Proof. apply (list_eqb_eq bl_eqb); [apply bl_eqb_eq | intros [|] [|]; reflexivity]. Qed.

Lemma colour_eqb_eq c d : colour_eqb c d = true <-> c = d.
Proof.
  destruct c as [c1 c2], d as [d1 d2]. unfold colour_eqb; simpl. rewrite andb_true_iff, bl_eqb_eq, bll_eqb_eq.
  split; [intros [-> ->]; reflexivity | intros [= -> ->]; auto].
Qed.

Lemma colour_eqb_rfl c : colour_eqb c c = true.
Proof. apply colour_eqb_eq. reflexivity. Qed.

Lemma ole_total x y : ole x y = false -> ole y x = true.
Proof. destruct x, y; simpl; auto; try discriminate. rewrite N.leb_gt, N.leb_le. lia. Qed.

Lemma ole_antisym x y : ole x y = true -> ole y x = true -> x = y.
Proof. destruct x, y; simpl; auto; try discriminate. rewrite !N.leb_le. intros. f_equal. lia. Qed.

Lemma ole_trans x y z : ole x y = true -> ole y z = true -> ole x z = true.
Proof. destruct x, y, z; simpl; auto; try discriminate. rewrite !N.leb_le. lia. Qed.

Lemma lle_total a : forall b, lle a b = false -> lle b a = true.
Proof.
  induction a as [|x a IH]; intros [|y b]; simpl; auto; try discriminate.
  rewrite (opt_eqb_sym y x). destruct (opt_eqb x y); [apply IH | apply ole_total].
Qed.

Lemma lle_antisym a : forall b, lle a b = true -> lle b a = true -> a = b.
Proof.
  induction a as [|x a IH]; intros [|y b]; simpl; auto; try discriminate.
  rewrite (opt_eqb_sym y x). destruct (opt_eqb x y) eqn:E.
  - apply opt_eqb_eq in E. subst. intros A B. f_equal. apply IH; auto.
  - intros A B. pose proof (ole_antisym x y A B) as F. subst. rewrite opt_eqb_rfl in E. discriminate.
Qed.

Lemma lle_trans a : forall b c, lle a b = true -> lle b c = true -> lle a c = true.
Proof.
  induction a as [|x a IH]; intros [|y b] [|z c]; simpl; auto; try discriminate.
  destruct (opt_eqb x y) eqn:E1.
  - apply opt_eqb_eq in E1. subst y. destruct (opt_eqb x z); [apply IH | auto].
  - destruct (opt_eqb y z) eqn:E2.
    + apply opt_eqb_eq in E2. subst z. rewrite E1. auto.
    + intros A B. destruct (opt_eqb x z) eqn:E3.
      * apply opt_eqb_eq in E3. subst z. pose proof (ole_antisym x y A B) as F. subst. rewrite opt_eqb_rfl in E1. discriminate.
      * eapply ole_trans; eauto.
Qed.

Lemma insert_comm x y l : insert_l x (insert_l y l) = insert_l y (insert_l x l).
Proof.
  induction l as [|z l IH]; simpl.
  - destruct (lle x y) eqn:A, (lle y x) eqn:B; auto.
    + rewrite (lle_antisym x y A B). reflexivity.
    + rewrite (lle_total x y A) in B. discriminate.
  - destruct (lle y z) eqn:Yz, (lle x z) eqn:Xz; simpl.
    + destruct (lle x y) eqn:A, (lle y x) eqn:B; simpl; rewrite ?Yz, ?Xz; auto.
      * rewrite (lle_antisym x y A B). reflexivity.
      * rewrite (lle_total x y A) in B. discriminate.
    + rewrite Yz. destruct (lle x y) eqn:A; [|simpl; rewrite Xz; reflexivity].
      rewrite (lle_trans x y z A Yz) in Xz. discriminate.
    + rewrite Xz. destruct (lle y x) eqn:B; [|simpl; rewrite Yz; reflexivity].
      rewrite (lle_trans y x z B Xz) in Yz. discriminate.
    + rewrite Yz, Xz. f_equal. exact IH.
Qed.

Lemma sort_perm l l' : Permutation l l' -> sort_l l = sort_l l'.
Proof.
  induction 1; simpl; auto; try congruence. apply insert_comm.
Qed.

Definition cnt (c : colour) (l : list colour) : N := fold_right (fun d a => if colour_eqb c d then N.succ a else a) 0%N l.

Lemma cnt_perm c l l' : Permutation l l' -> cnt c l = cnt c l'.
Proof.
  induction 1; simpl; auto; try congruence.
  - rewrite IHPermutation. reflexivity.
  - destruct (colour_eqb c x), (colour_eqb c y); reflexivity.
Qed.

Lemma hist_get_add c d h : hist_get c (hist_add d h) = if colour_eqb c d then N.succ (hist_get c h) else hist_get c h.
Proof.
  induction h as [|[c' n] r IH]; simpl.
  - destruct (colour_eqb c d); reflexivity.
  - destruct (colour_eqb d c') eqn:E1; simpl.
    + apply colour_eqb_eq in E1. subst c'. destruct (colour_eqb c d); reflexivity.
    + destruct (colour_eqb c c') eqn:E2.
      * apply colour_eqb_eq in E2. subst c'. destruct (colour_eqb c d) eqn:E3; auto.
        apply colour_eqb_eq in E3. subst d. rewrite colour_eqb_rfl in E1. discriminate.
      * exact IH.
Qed.

Lemma hist_get_fold (col : N -> colour) l : forall h0 c,
  hist_get c (fold_left (fun h u => hist_add (col u) h) l h0) = (cnt c (map col l) + hist_get c h0)%N.
Proof.
  induction l as [|u l IH]; intros h0 c; simpl; [reflexivity|].
  rewrite IH, hist_get_add. destruct (colour_eqb c (col u)); lia.
Qed.

(** a histogram lists each colour once, so an entry is the count of its colour *)
Lemma hist_add_keys d h c : In c (map fst (hist_add d h)) -> c = d \/ In c (map fst h).
Proof.
  induction h as [|[c' m] r IH]; simpl; [intros [<-|[]]; auto|].
  destruct (colour_eqb d c'); simpl; [auto|]. intros [<-|I]; auto. destruct (IH I); auto.
Qed.

Lemma hist_add_nodup d h : NoDup (map fst h) -> NoDup (map fst (hist_add d h)).
Proof.
  induction h as [|[c' m] r IH]; simpl; intros Hnd; [constructor; [intros []|constructor]|].
  inversion Hnd as [|? ? Hc Hr]; subst. destruct (colour_eqb d c') eqn:E; simpl; [exact Hnd|].
  constructor; [|apply IH; exact Hr]. intros I. destruct (hist_add_keys d r c' I) as [->|I']; [|contradiction].
  rewrite colour_eqb_rfl in E. discriminate.
Qed.

Lemma hist_fold_nodup (col : N -> colour) l : forall h0, NoDup (map fst h0) ->
  NoDup (map fst (fold_left (fun h u => hist_add (col u) h) l h0)).
Proof. induction l as [|u l IH]; simpl; intros h0 Hnd; [exact Hnd|]. apply IH, hist_add_nodup, Hnd. Qed.

Lemma hist_entry_get h c n : NoDup (map fst h) -> In (c, n) h -> hist_get c h = n.
Proof.
  induction h as [|[c' m] r IH]; simpl; [intros _ []|]. intros Hnd I. inversion Hnd as [|? ? Hc Hr]; subst.
  destruct I as [[= -> ->]|I]; [rewrite colour_eqb_rfl; reflexivity|].
  destruct (colour_eqb c c') eqn:K; [|auto]. apply colour_eqb_eq in K. subst c'. exfalso. apply Hc.
  change c with (fst (c, n)). apply in_map. exact I.
Qed.

Definition nbrs_of (es : list (N * N * attrs)) (u : N) : list N :=
  flat_map (fun e : N * N * attrs => let '(a, b, _) := e in if N.eqb a u then [b] else if N.eqb b u then [a] else []) es.

Lemma nbrs_nbrs_of (g : graph) u : nbrs g u = nbrs_of (gedges g) u.
Proof. reflexivity. Qed.

Lemma nbrs_in es u v : In v (nbrs_of es u) <-> find_edge u v es <> None.
Proof. exact (in_nbrs (LG (A:=attrs) [] es) u v). Qed.

Lemma nbrs_nodup es u : simple es -> NoDup (nbrs_of es u).
Proof.
  induction 1 as [|a b x r Hn Hs IH]; simpl; [constructor|].
  destruct (N.eqb_spec a u).
  - subst. simpl. constructor; auto. rewrite nbrs_in. congruence.
  - destruct (N.eqb_spec b u); simpl; auto.
    subst. constructor; auto. rewrite nbrs_in, find_edge_sym. congruence.
Qed.

Lemma nbrs_wf (g : graph) u v : gwf g -> In v (nbrs g u) -> In u (node_ids g) /\ In v (node_ids g) /\ u <> v /\ LGraph.adj g u v <> None.
Proof.
  intros W I. apply in_nbrs in I. destruct (LGraph.adj g u v) as [y|] eqn:E; [|congruence].
  destruct (find_edge_some_in _ _ _ E) as [Iy|Iy]; destruct (wf_edge_nodes W Iy) as (A & B & C); repeat split; auto; congruence.
Qed.

Lemma adj_nbrs (g : graph) u v : LGraph.adj g u v <> None -> In v (nbrs g u).
Proof. apply in_nbrs. Qed.

(** an embedding maps the neighbours of a pattern node injectively to neighbours of its image *)
Lemma emb_nbrs ind nm em (H P : graph) f u : gwf P -> emb ind nm em H P f -> In u (node_ids P) ->
  NoDup (map f (nbrs P u)) /\ incl (map f (nbrs P u)) (nbrs H (f u)).
Proof.
  intros WP (E1 & E2 & E3) Iu. split.
  - apply NoDup_map_inj_in; [rewrite nbrs_nbrs_of; apply nbrs_nodup, wf_simple; exact WP|].
    intros a b Ia Ib. apply E2; [apply (nbrs_wf P u a WP Ia) | apply (nbrs_wf P u b WP Ib)].
  - intros x I. apply in_map_iff in I. destruct I as (v & <- & Iv). destruct (nbrs_wf P u v WP Iv) as (_ & Inv & Hne & A).
    apply adj_nbrs. specialize (E3 u v Iu Inv Hne). destruct (LGraph.adj P u v); [|congruence].
    destruct (LGraph.adj H (f u) (f v)); [discriminate|destruct E3].
Qed.

Section WL.
Variables (na : list N) (nm em : attrs -> attrs -> bool) (H P : graph) (f : N -> N).
Hypothesis WH : gwf H.
Hypothesis WP : gwf P.
Hypothesis En : n_nodes H = n_nodes P.
Hypothesis R : respects na nm.
Hypothesis He : emb true nm em H P f.

Lemma wl_base u : In u (node_ids P) -> base na H (f u) = base na P u.
Proof.
  intros Iu. unfold base. apply map_ext_in. intros k Ik. destruct He as (E1 & _). apply (R _ _ (proj2 (E1 u Iu)) k Ik).
Qed.

Lemma wl_nbrs u : In u (node_ids P) -> Permutation (map f (nbrs P u)) (nbrs H (f u)).
Proof.
  intros Iu. pose proof (emb_onto nm em H P f WH WP En He) as (_ & On). destruct (emb_nbrs _ _ _ H P f u WP He Iu) as (Nd & Inc).
  apply NoDup_Permutation; [exact Nd | rewrite nbrs_nbrs_of; apply nbrs_nodup, wf_simple; exact WH |].
  intros x. split; [apply Inc|].
  intros I. destruct (nbrs_wf H (f u) x WH I) as (_ & Ix & Hne & A). destruct (On x Ix) as (v & Iv & <-).
  apply in_map. apply adj_nbrs. assert (Huv : u <> v) by congruence. destruct He as (_ & _ & E3). specialize (E3 u v Iu Iv Huv).
  destruct (LGraph.adj P u v); [discriminate|]. destruct (LGraph.adj H (f u) (f v)); [discriminate|congruence].
Qed.

Lemma wl_colour u : In u (node_ids P) -> colour_of na H (f u) = colour_of na P u.
Proof.
  intros Iu. unfold colour_of. rewrite (wl_base u Iu). f_equal.
  rewrite <- (sort_perm _ _ (Permutation_map (base na H) (wl_nbrs u Iu))). rewrite map_map. f_equal.
  apply map_ext_in. intros v Iv. apply wl_base. apply (nbrs_wf P u v WP Iv).
Qed.

Lemma wl_cnt c : cnt c (map (colour_of na H) (node_ids H)) = cnt c (map (colour_of na P) (node_ids P)).
Proof.
  rewrite <- (cnt_perm c _ _ (Permutation_map (colour_of na H) (emb_nodes_perm _ _ _ _ _ _ WH WP En He))), map_map. f_equal.
  apply map_ext_in. intros u Iu. apply wl_colour. exact Iu.
Qed.

Lemma wl_contained : hist_contained (wl1_hash na P) (wl1_hash na H) = true.
Proof.
  unfold hist_contained. apply forallb_forall. intros [c n] I. simpl. apply N.leb_le.
  unfold wl1_hash in *. rewrite hist_get_fold, wl_cnt, <- (hist_get_fold (colour_of na P)), (hist_entry_get _ c n); [apply N.le_refl | | exact I].
  apply hist_fold_nodup. constructor.
Qed.
End WL.

(** (5, engine) every check of _pre_check — node count, edge count, WL-1 histograms on equal orders — is a necessary condition for
    induced containment *)
Lemma pre_check_necessary e nm em H P : gwf H -> gwf P -> respects (e_na e) nm ->
  contained true nm em H P -> pre_check_p e H P = true.
Proof.
  intros WH WP R (f & He). unfold pre_check_p.
  rewrite (emb_counts _ _ _ _ _ _ WH WP He).
  simpl. destruct (negb (e_wl e) || negb (n_nodes H =? n_nodes P)) eqn:T; [reflexivity|].
  apply orb_false_iff in T. destruct T as (_ & T). apply negb_false_iff, Nat.eqb_eq in T.
  eapply wl_contained; eauto.
Qed.
