(** C18 — equivariance of the canonicaliser for EVERY attribute selection (generic form of model/C18_SpAttrModel.v, of which the
    bipartite selections of model/C18_AttrModel.v are an instance): if a second presentation (g', nv') corresponds to (g, nv)
    through an injective map f on the quantities the code reads (selected node attributes, degrees, adjacency, the multiset of
    selected out-edge attributes, the printed edge bits), then the leaf enumeration, the minimal label and the list of minimal
    leaves correspond.  Instances: a renamed and re-presented view (clause 2, first half: same minimal label, same
    automorphism_count), and a self-map that preserves the SELECTED attributes (clause 4, sound half: every such self-map maps
    minimal leaves to minimal leaves).  The bipartite selections are the generic canonicaliser at (nvA, evA)
    ([canon_searchA_G]), which gives them clause 1 ([canon_isoA]). *)
From Coq Require Import List NArith ZArith Bool Arith Lia Permutation.
From SK Require Import lib.IRSortKeys lib.IRCore lib.IRSearch lib.StrJoin lib.C18_IRValid model.C18_Model model.C18_AttrModel
  model.C18_SpAttrModel proof.C18_Order proof.C18_Spec proof.C18_Graph proof.C18_Canon proof.C18_Equiv proof.C18_Label proof.C18_Aut
  proof.C18_Invariant proof.C18_Count proof.C18_WL proof.C18_SpAttr proof.C18_Attr.
From SK Require lib.IRInst.
Import ListNotations.

Section GenEquiv.
Variable f : N -> N.
Hypothesis f_inj : forall x y, f x = f y -> x = y.
Variables (g g' : vgraph) (nv nv' : N -> list (Z * list N)) (ev : eattr -> list (Z * list N)) (nnk nek : nat).
Hypothesis Hnd : NoDup (node_ids g).
Hypothesis Hnodes : Permutation (map f (node_ids g)) (node_ids g').
Hypothesis Hnv : forall v, nv' (f v) = nv v.
Hypothesis Hin : forall v, indeg g' (f v) = indeg g v.
Hypothesis Hout : forall v, outdeg g' (f v) = outdeg g v.
Hypothesis Hnbr : forall u v, is_nbr g' (f u) (f v) = is_nbr g u v.
Hypothesis Hoa : forall v, Permutation (map (ekeyG ev) (out_attrs g' (f v))) (map (ekeyG ev) (out_attrs g v)).
Hypothesis Hbit : forall u v, bitG g' ev nek (f u) (f v) = bitG g ev nek u v.

Lemma Hlen : length (vnodes g') = length (vnodes g).
Proof.
  pose proof (Permutation_length Hnodes) as H. unfold node_ids in H. rewrite !map_length in H. auto.
Qed.
Lemma Hnd' : NoDup (node_ids g').
Proof. eapply Permutation_NoDup; [exact Hnodes|]. apply NoDup_map_inj_on; auto. Qed.

Lemma cntG_rel v c c' : cellR f c c' -> cnt g' (f v) c' = cnt g v c.
Proof.
  intros Hc. unfold cnt. f_equal. unfold cellR in Hc.
  rewrite <- (Permutation_length (Permutation_filter (is_nbr g' (f v)) Hc)).
  rewrite <- (map_filter_comm f (is_nbr g v) (is_nbr g' (f v))).
  - apply map_length.
  - intros x _. apply Hnbr.
Qed.

Lemma sigG_rel P P' v : partR f P P' -> sigG g' nv' ev P' (f v) = sigG g nv ev P v.
Proof.
  intros HP. unfold sigG, nkeyG. rewrite Hnv, Hin, Hout. f_equal. f_equal. f_equal.
  - induction HP as [|c c' P P' Hc HP IH]; simpl; auto. f_equal; auto. apply cntG_rel. auto.
  - f_equal. apply sort_tuples_perm. apply Hoa.
Qed.

Lemma labelG_rel p : labelG g' nv' ev nek (map f p) = labelG g nv ev nek p.
Proof.
  unfold labelG. rewrite map_map. f_equal; [f_equal; apply map_ext; intros v; rewrite Hnv; auto|].
  f_equal. f_equal. unfold edge_bitsG. rewrite indexed_map, flat_map_map. apply flat_map_ext. intros iv.
  rewrite flat_map_map. apply flat_map_ext. intros jw. simpl. rewrite Hbit. reflexivity.
Qed.

Lemma init0_rel (l l' : list N) : NoDup l -> NoDup l' -> Permutation (map f l) l' ->
  partR f (match l with [] => [] | _ => [sortN l] end) (match l' with [] => [] | _ => [sortN l'] end).
Proof.
  intros H1 H2 HP. destruct l as [|a l0], l' as [|a' l0'].
  - constructor.
  - apply Permutation_nil in HP. discriminate.
  - apply Permutation_sym, Permutation_nil in HP. discriminate.
  - constructor; [|constructor]. unfold cellR.
    eapply perm_trans; [apply Permutation_map; apply sortN_perm; exact H1|].
    apply Permutation_sym. eapply perm_trans; [apply sortN_perm; exact H2|]. apply Permutation_sym. exact HP.
Qed.

Lemma filter_cell_rel (k : list Z) :
  cellR f (sortN (filter (fun v => eqb lexleb (nkeyG nv v) k) (node_ids g)))
          (sortN (filter (fun v => eqb lexleb (nkeyG nv' v) k) (node_ids g'))).
Proof.
  unfold cellR.
  eapply perm_trans; [apply Permutation_map; apply sortN_perm; apply NoDup_filter; exact Hnd|].
  apply Permutation_sym. eapply perm_trans; [apply sortN_perm; apply NoDup_filter; exact Hnd'|].
  eapply perm_trans; [apply Permutation_filter; apply Permutation_sym; exact Hnodes|].
  rewrite <- (map_filter_comm f (fun v => eqb lexleb (nkeyG nv v) k) (fun v => eqb lexleb (nkeyG nv' v) k)); [apply Permutation_refl|].
  intros x _. unfold nkeyG. rewrite Hnv. reflexivity.
Qed.

Lemma init_partG_rel : partR f (init_partG g nv nnk) (init_partG g' nv' nnk).
Proof.
  unfold init_partG. destruct nnk as [|k].
  - apply init0_rel; [exact Hnd|exact Hnd'|exact Hnodes].
  - assert (E : sort_dedup lexleb (map (nkeyG nv') (node_ids g')) = sort_dedup lexleb (map (nkeyG nv) (node_ids g))).
    { apply (sort_dedup_ext lexleb IRInst.lexleb_total (fun a b c H1 H2 => IRInst.lexleb_trans a b c H1 H2) IRInst.lexleb_antisym).
      intros y. rewrite !in_map_iff. split.
      - intros (x & <- & Hx). apply (Permutation_in _ (Permutation_sym Hnodes)) in Hx. apply in_map_iff in Hx.
        destruct Hx as (x0 & <- & Hx0). exists x0. split; auto. unfold nkeyG. rewrite Hnv. reflexivity.
      - intros (x & <- & Hx). exists (f x). split; [unfold nkeyG; rewrite Hnv; reflexivity|].
        apply (Permutation_in _ Hnodes). apply in_map. auto. }
    rewrite E. apply Forall2_map_same. intros k0 _. apply filter_cell_rel.
Qed.

Theorem leavesG_rel : Permutation (map (map f) (leaves_ofG g nv ev nnk)) (leaves_ofG g' nv' ev nnk).
Proof.
  unfold leaves_ofG. rewrite Hlen.
  apply (leaves_rel lexleb IRInst.lexleb_total (fun a b c H1 H2 => IRInst.lexleb_trans a b c H1 H2)
           IRInst.lexleb_antisym f_inj (sigG g nv ev) (sigG g' nv' ev)).
  - intros P P' v HP. apply sigG_rel; auto.
  - apply init_partG_rel.
Qed.

Theorem best_labelG_rel :
  best_label (canon_searchG g' nv' ev nnk nek) = best_label (canon_searchG g nv ev nnk nek).
Proof.
  rewrite !canon_searchG_fold, !best_label_fold.
  rewrite <- (fold_minl_perm lexlebN lexlebN_total lexlebN_trans lexlebN_antisym
                (Permutation_map (labelG g' nv' ev nek) leavesG_rel)).
  rewrite map_map. f_equal. apply map_ext. intros p. apply labelG_rel.
Qed.

(** the minimal leaves correspond: in particular automorphism_count is the same *)
Theorem min_leavesG_rel :
  Permutation (map (map f) (snd (canon_searchG g nv ev nnk nek))) (snd (canon_searchG g' nv' ev nnk nek)).
Proof.
  pose proof best_labelG_rel as Hb. unfold best_label in Hb.
  rewrite !canon_searchG_fold in *.
  destruct (fst (fold_left (visit lexlebN (labelG g nv ev nek)) (leaves_ofG g nv ev nnk) (None, []))) as [[bl bp]|] eqn:E1;
  destruct (fst (fold_left (visit lexlebN (labelG g' nv' ev nek)) (leaves_ofG g' nv' ev nnk) (None, []))) as [[bl' bp']|] eqn:E2;
    simpl in Hb; try discriminate.
  - inversion Hb; subst bl'.
    rewrite (fold_min_leaves _ lexlebN lexlebN_total lexlebN_trans lexlebN_antisym _ _ _ _ E1).
    rewrite (fold_min_leaves _ lexlebN lexlebN_total lexlebN_trans lexlebN_antisym _ _ _ _ E2).
    eapply perm_trans; [|apply Permutation_filter; exact leavesG_rel].
    rewrite <- (map_filter_comm (map f) (fun p => eqb lexlebN (labelG g nv ev nek p) bl) (fun p => eqb lexlebN (labelG g' nv' ev nek p) bl));
      [apply Permutation_refl|].
    intros p _. rewrite labelG_rel. reflexivity.
  - (* no leaf on either side *)
    assert (L1 : leaves_ofG g nv ev nnk = []).
    { destruct (leaves_ofG g nv ev nnk) as [|p l] eqn:El; auto. exfalso.
      apply (fold_visit_some _ lexlebN (labelG g nv ev nek) (p :: l) (None, [])); auto. left. discriminate. }
    pose proof leavesG_rel as HL. rewrite L1 in HL. simpl in HL. apply Permutation_nil in HL. rewrite L1, HL. simpl. constructor.
Qed.
End GenEquiv.

(* ---------------- instance (a): a renamed, re-presented view ---------------- *)
Section RenameG.
Variable f : N -> N.
Hypothesis f_inj : forall x y, f x = f y -> x = y.
Variables (g g' : vgraph) (nv nv' : N -> list (Z * list N)) (ev : eattr -> list (Z * list N)) (nnk nek : nat).
Hypothesis Hw : wf g.
Hypothesis Hg : geq g' (relabel f g).
Hypothesis Hnv : forall v, nv' (f v) = nv v.

Lemma Hwr : wf (relabel f g).
Proof. apply wf_relabel; auto. intros x y _ _. apply f_inj. Qed.
Lemma Hgs : geq (relabel f g) g'.
Proof. apply geq_sym. exact Hg. Qed.

Theorem renameG_rel :
  best_label (canon_searchG g' nv' ev nnk nek) = best_label (canon_searchG g nv ev nnk nek) /\
  Permutation (map (map f) (snd (canon_searchG g nv ev nnk nek))) (snd (canon_searchG g' nv' ev nnk nek)).
Proof.
  assert (Hnodes : Permutation (map f (node_ids g)) (node_ids g')).
  { rewrite <- node_ids_relabel. apply geq_node_ids. exact Hgs. }
  assert (Hin : forall v, indeg g' (f v) = indeg g v).
  { intros v. rewrite <- (indeg_rn f f_inj g v). unfold indeg. apply Permutation_length. apply Permutation_filter. apply Hg. }
  assert (Hout : forall v, outdeg g' (f v) = outdeg g v).
  { intros v. rewrite <- (outdeg_rn f f_inj g v). unfold outdeg. apply Permutation_length. apply Permutation_filter. apply Hg. }
  assert (Hnbr : forall u v, is_nbr g' (f u) (f v) = is_nbr g u v).
  { intros u v. rewrite (geq_is_nbr (relabel f g) g' (f u) (f v) Hwr Hgs). apply is_nbr_rn; auto. }
  assert (Hoa : forall v, Permutation (map (ekeyG ev) (out_attrs g' (f v))) (map (ekeyG ev) (out_attrs g v))).
  { intros v. rewrite <- (out_attrs_rn f f_inj g v). apply Permutation_map. unfold out_attrs. apply Permutation_map.
    apply Permutation_filter. apply Hg. }
  assert (Hbit : forall u v, bitG g' ev nek (f u) (f v) = bitG g ev nek u v).
  { intros u v. unfold bitG. rewrite (geq_find_arc (relabel f g) g' (f u) (f v) Hwr Hgs), (find_arc_rn f f_inj). reflexivity. }
  split.
  - apply (best_labelG_rel f f_inj g g' nv nv' ev nnk nek (proj1 Hw) Hnodes Hnv Hin Hout Hnbr Hoa Hbit).
  - apply (min_leavesG_rel f f_inj g g' nv nv' ev nnk nek (proj1 Hw) Hnodes Hnv Hin Hout Hnbr Hoa Hbit).
Qed.
End RenameG.

(* ---------------- the bipartite selections of C18_AttrModel are an instance of the generic canonicaliser ---------------- *)
Definition nvA (g : vgraph) (t : ltab) (nk : list nsel) (v : N) : list (Z * list N) := map (nval g t v) nk.
Definition evA (ek : list esel) (a : eattr) : list (Z * list N) := map (eval a) ek.
Definition evS (ek : list sesel) (a : eattr) : list (Z * list N) := map (evalS a) ek.

Lemma map_const_repeat {A B} (b : B) (l : list A) : map (fun _ => b) l = repeat b (length l).
Proof. induction l; simpl; auto. f_equal. auto. Qed.

Lemma sigA_G g t nk ek P v : sigA g t nk ek P v = sigG g (nvA g t nk) (evA ek) P v.
Proof.
  unfold sigA, sigG, nkey, nkeyG, nvA. rewrite map_map. f_equal. f_equal. f_equal. f_equal. f_equal.
  apply map_ext. intros a. unfold ekey, ekeyG, evA. rewrite map_map. reflexivity.
Qed.
Lemma labelA_G g t nk ek p : labelA g t nk ek p = labelG g (nvA g t nk) (evA ek) (length ek) p.
Proof.
  unfold labelA, labelG. f_equal; [f_equal; apply map_ext; intros v; unfold nvA; rewrite map_map; reflexivity|].
  f_equal. f_equal. unfold edge_bitsA, edge_bitsG. apply flat_map_ext. intros iv. apply flat_map_ext. intros jw.
  destruct (Nat.eqb _ _); auto. f_equal. unfold bitA, bitG.
  destruct (find_arc g (snd iv) (snd jw)) as [x|]; [unfold evA; rewrite map_map; reflexivity|].
  rewrite map_const_repeat. reflexivity.
Qed.
Lemma init_partA_G g t nk : init_partA g t nk = init_partG g (nvA g t nk) (length nk).
Proof.
  unfold init_partA, init_partG. destruct nk as [|s0 nk']; [reflexivity|]. cbn [length].
  assert (E : forall v, nkey g t (s0 :: nk') v = nkeyG (nvA g t (s0 :: nk')) v).
  { intros v. unfold nkey, nkeyG, nvA. rewrite map_map. reflexivity. }
  rewrite (map_ext _ _ E). apply map_ext. intros k. f_equal. apply filter_ext. intros v. rewrite E. reflexivity.
Qed.
Theorem canon_searchA_G g t nk ek :
  canon_searchA g t nk ek = canon_searchG g (nvA g t nk) (evA ek) (length nk) (length ek).
Proof.
  unfold canon_searchA, canon_searchG. rewrite init_partA_G.
  apply search_ext; [intros; apply sigA_G|intros; apply labelA_G].
Qed.

(** clause 1 for every bipartite selection: the search finds a leaf and the canonical graph is the view relabelled by a
    bijection onto k+1..k+n *)
Theorem canon_isoA g t nk ek : wf g ->
  fst (canon_searchA g t nk ek) <> None /\
  forall lab perm, fst (canon_searchA g t nk ek) = Some (lab, perm) ->
    lab = labelA g t nk ek perm /\
    canon_copy g perm.
Proof.
  intros Hw. rewrite canon_searchA_G.
  destruct (canon_isoG g (nvA g t nk) (evA ek) (length nk) (length ek) Hw) as [H1 H2]. split; [exact H1|].
  intros lab perm Hb. rewrite labelA_G. exact (H2 lab perm Hb).
Qed.

Definition relab_tab (f : N -> N) (t : ltab) : ltab := map (fun p => (f (fst p), snd p)) t.
Lemma ltab_get_relab f (f_inj : forall x y, f x = f y -> x = y) t v : ltab_get (relab_tab f t) (f v) = ltab_get t v.
Proof.
  induction t as [|[u x] t IH]; simpl; auto. rewrite (eqb_f f f_inj). destruct (N.eqb u v); auto.
Qed.

Lemma nvA_relab f (f_inj : forall x y, f x = f y -> x = y) g g' t nk v :
  wf g -> geq g' (relabel f g) -> nvA g' (relab_tab f t) nk (f v) = nvA g t nk v.
Proof.
  intros Hw Hg. unfold nvA. apply map_ext. intros s.
  assert (Hk : kind_of g' (f v) = kind_of g v).
  { rewrite (geq_kind_of (relabel f g) g' (f v) (Hwr f f_inj g Hw) (Hgs f g g' Hg)). apply kind_of_rn; auto. }
  destruct s; simpl; rewrite ?Hk; auto. apply ltab_get_relab; auto.
Qed.

(** clause 2, first half, for EVERY selection (bipartite view): a renamed, re-presented view with the renamed label table gets
    the same minimal label and its minimal leaves are the renamed minimal leaves (so automorphism_count is the same) *)
Theorem attr_invariant_partial f (f_inj : forall x y, f x = f y -> x = y) g g' t nk ek :
  wf g -> geq g' (relabel f g) ->
  best_label (canon_searchA g' (relab_tab f t) nk ek) = best_label (canon_searchA g t nk ek) /\
  Permutation (map (map f) (snd (canon_searchA g t nk ek))) (snd (canon_searchA g' (relab_tab f t) nk ek)).
Proof.
  intros Hw Hg. rewrite !canon_searchA_G.
  apply (renameG_rel f f_inj g g' (nvA g t nk) (nvA g' (relab_tab f t) nk) (evA ek) (length nk) (length ek) Hw Hg).
  exact (fun v => nvA_relab f f_inj g g' t nk v Hw Hg).
Qed.

(** the same on the species view (aggregates) *)
Theorem spattr_invariant_partial f (f_inj : forall x y, f x = f y -> x = y) g g' t nk ek :
  wf g -> geq g' (relabel f g) ->
  best_label (canon_searchS g' (relab_tab f t) nk ek) = best_label (canon_searchS g t nk ek) /\
  Permutation (map (map f) (snd (canon_searchS g t nk ek))) (snd (canon_searchS g' (relab_tab f t) nk ek)).
Proof.
  intros Hw Hg. unfold canon_searchS.
  apply (renameG_rel f f_inj g g' (fun v => map (nval g t v) nk) (fun v => map (nval g' (relab_tab f t) v) nk)
           (fun a => map (evalS a) ek) (length nk) (length ek) Hw Hg).
  exact (fun v => nvA_relab f f_inj g g' t nk v Hw Hg).
Qed.

(* ---------------- instance (b): a self-map that preserves the selected attributes ---------------- *)
(** s is injective on the nodes, maps nodes to nodes, preserves the selected node attributes (as compared and as printed) and,
    on every ordered pair of nodes, the presence of an arc and its selected attributes *)
Definition is_autG (g : vgraph) (nv : N -> list (Z * list N)) (ev : eattr -> list (Z * list N)) (s : N -> N) : Prop :=
  inj_on s (node_ids g) /\ (forall v, In v (node_ids g) -> In (s v) (node_ids g)) /\
  (forall v, In v (node_ids g) -> nv (s v) = nv v) /\
  (forall u v, In u (node_ids g) -> In v (node_ids g) ->
     option_map ev (find_arc g (s u) (s v)) = option_map ev (find_arc g u v)).

(** [is_autG g nv ev] is [pres_maps] at the selected node attributes and the selected reading of the arcs *)
Lemma is_autG_pres g nv ev s :
  is_autG g nv ev s <-> pres_maps _ _ (node_ids g) nv (fun u v => option_map ev (find_arc g u v)) s.
Proof. reflexivity. Qed.

Section AutG.
Variables (g : vgraph) (nv : N -> list (Z * list N)) (ev : eattr -> list (Z * list N)) (nnk nek : nat) (s : N -> N).
Hypothesis Hw : wf g.
Hypothesis Hs : is_autG g nv ev s.

Definition extG : N -> N := ext_on (node_ids g) s.
Lemma extG_on v : In v (node_ids g) -> extG v = s v.
Proof. apply ext_on_in. Qed.
Lemma extG_off v : ~ In v (node_ids g) -> extG v = v.
Proof. apply ext_on_out. Qed.
Lemma extG_in v : In (extG v) (node_ids g) <-> In v (node_ids g).
Proof.
  destruct Hs as (_ & Hc & _). unfold extG, ext_on. destruct (memN v (node_ids g)) eqn:E.
  - apply memN_spec in E. split; auto.
  - tauto.
Qed.
Lemma extG_inj x y : extG x = extG y -> x = y.
Proof. exact (ext_on_inj _ s (proj1 Hs) (proj1 (proj2 Hs)) x y). Qed.

Lemma nodes_perm_s : Permutation (map s (node_ids g)) (node_ids g).
Proof. apply (pres_perm _ _ _ nv (fun u v => option_map ev (find_arc g u v)) (proj1 Hw)), is_autG_pres, Hs. Qed.

Lemma find_arc_off_l u v : ~ In u (node_ids g) -> find_arc g u v = None.
Proof.
  intros Hu. destruct (find_arc g u v) as [a|] eqn:E; auto. exfalso. apply Hu.
  unfold find_arc in E. apply find_arc_l_some in E. destruct Hw as (_ & _ & He). apply (He _ E).
Qed.
Lemma find_arc_off_r u v : ~ In v (node_ids g) -> find_arc g u v = None.
Proof.
  intros Hv. destruct (find_arc g u v) as [a|] eqn:E; auto. exfalso. apply Hv.
  unfold find_arc in E. apply find_arc_l_some in E. destruct Hw as (_ & _ & He). apply (He _ E).
Qed.

(** presence and selected attributes of every arc, for ALL pairs (outside the nodes there are no arcs) *)
Lemma ev_ext u v : option_map ev (find_arc g (extG u) (extG v)) = option_map ev (find_arc g u v).
Proof.
  destruct Hs as (_ & _ & _ & He).
  destruct (in_dec N.eq_dec u (node_ids g)) as [Hu|Hu].
  - destruct (in_dec N.eq_dec v (node_ids g)) as [Hv|Hv].
    + rewrite !extG_on by auto. apply He; auto.
    + rewrite (find_arc_off_r u v Hv), (find_arc_off_r (extG u) (extG v)); auto. rewrite extG_in. auto.
  - rewrite (find_arc_off_l u v Hu), (find_arc_off_l (extG u) (extG v)); auto. rewrite extG_in. auto.
Qed.
Lemma has_arc_ext u v : has_arc g (extG u) (extG v) = has_arc g u v.
Proof. unfold has_arc. pose proof (ev_ext u v) as H. destruct (find_arc g (extG u) (extG v)), (find_arc g u v); simpl in H; auto; discriminate. Qed.

Lemma out_keys_aut v : In v (node_ids g) ->
  Permutation (map ev (out_attrs g (s v))) (map ev (out_attrs g v)).
Proof.
  intros Hv. unfold out_attrs. rewrite !map_map.
  apply (out_arcs_aut _ _ _ g nv ev s (fun e : arc => ev (aattr e)) Hw (proj1 (is_autG_pres g nv ev s) Hs) v Hv). intros u a b _ E. exact E.
Qed.
Lemma in_keys_aut v : In v (node_ids g) ->
  Permutation (map (fun e : arc => ev (aattr e)) (filter (fun e => N.eqb (adst e) (s v)) (varcs g)))
              (map (fun e : arc => ev (aattr e)) (filter (fun e => N.eqb (adst e) v) (varcs g))).
Proof.
  intros Hv. apply (in_arcs_aut _ _ _ g nv ev s (fun e : arc => ev (aattr e)) Hw (proj1 (is_autG_pres g nv ev s) Hs) v Hv). intros u a b _ E. exact E.
Qed.

Theorem autG_rel :
  Permutation (map (map extG) (snd (canon_searchG g nv ev nnk nek))) (snd (canon_searchG g nv ev nnk nek)).
Proof.
  assert (Hnodes : Permutation (map extG (node_ids g)) (node_ids g)).
  { rewrite (map_ext_in extG s) by (intros; apply extG_on; auto). apply nodes_perm_s. }
  assert (Hnv : forall v, nv (extG v) = nv v).
  { intros v. destruct (in_dec N.eq_dec v (node_ids g)) as [Hv|Hv]; [rewrite extG_on by auto; apply Hs; auto|rewrite extG_off; auto]. }
  assert (Hin : forall v, indeg g (extG v) = indeg g v).
  { intros v. destruct (in_dec N.eq_dec v (node_ids g)) as [Hv|Hv]; [|rewrite extG_off; auto]. rewrite extG_on by auto.
    unfold indeg. pose proof (Permutation_length (in_keys_aut v Hv)) as H. rewrite !map_length in H. exact H. }
  assert (Hout : forall v, outdeg g (extG v) = outdeg g v).
  { intros v. destruct (in_dec N.eq_dec v (node_ids g)) as [Hv|Hv]; [|rewrite extG_off; auto]. rewrite extG_on by auto.
    pose proof (Permutation_length (out_keys_aut v Hv)) as H. unfold out_attrs in H. rewrite !map_length in H. exact H. }
  assert (Hnbr : forall u v, is_nbr g (extG u) (extG v) = is_nbr g u v).
  { intros u v. unfold is_nbr. rewrite !has_arc_ext. reflexivity. }
  assert (Hoa : forall v, Permutation (map (ekeyG ev) (out_attrs g (extG v))) (map (ekeyG ev) (out_attrs g v))).
  { intros v. destruct (in_dec N.eq_dec v (node_ids g)) as [Hv|Hv]; [|rewrite extG_off; auto]. rewrite extG_on by auto.
    unfold ekeyG. rewrite <- !(map_map ev (map fst)). apply Permutation_map. apply out_keys_aut. auto. }
  assert (Hbit : forall u v, bitG g ev nek (extG u) (extG v) = bitG g ev nek u v).
  { intros u v. unfold bitG. pose proof (ev_ext u v) as H.
    destruct (find_arc g (extG u) (extG v)), (find_arc g u v); simpl in H; try discriminate; auto. inversion H as [E]. rewrite E. reflexivity. }
  apply (min_leavesG_rel extG extG_inj g g nv nv ev nnk nek (proj1 Hw) Hnodes Hnv Hin Hout Hnbr Hoa Hbit).
Qed.
End AutG.

(* ---------------- clause 4, sound half, for every selection ---------------- *)
Section AutCount.
Variables (g : vgraph) (nv : N -> list (Z * list N)) (ev : eattr -> list (Z * list N)) (nnk nek : nat).
Hypothesis Hw : wf g.

Lemma min_leavesG_leaf q : In q (snd (canon_searchG g nv ev nnk nek)) -> In q (leaves_ofG g nv ev nnk).
Proof.
  rewrite canon_searchG_fold.
  destruct (fst (fold_left (visit lexlebN (labelG g nv ev nek)) (leaves_ofG g nv ev nnk) (None, []))) as [[bl bp]|] eqn:E.
  - rewrite (fold_min_leaves _ lexlebN lexlebN_total lexlebN_trans lexlebN_antisym _ _ _ _ E). intros H. apply filter_In in H. tauto.
  - destruct (leaves_ofG g nv ev nnk) as [|p l] eqn:El; [simpl; tauto|]. exfalso.
    apply (fold_visit_some _ lexlebN (labelG g nv ev nek) (p :: l) (None, [])); auto. left. discriminate.
Qed.
Lemma leafG_shape q : In q (leaves_ofG g nv ev nnk) -> exists pre r, q = pre ++ r /\ Permutation r (node_ids g) /\ incl pre (node_ids g).
Proof.
  intros Hq. unfold leaves_ofG in Hq.
  destruct (leaves_shape _ lexleb IRInst.lexleb_total (fun a b c H1 H2 => IRInst.lexleb_trans a b c H1 H2) IRInst.lexleb_antisym
              (sigG g nv ev) _ (node_ids g) (proj1 Hw) _ _ _ _ (init_partG_vpart g nv nnk (proj1 Hw)) Hq) as (pre & r & -> & Hr & Hi).
  exists pre, r. simpl. auto.
Qed.

(** every self-map that preserves the selected attributes maps minimal leaves to minimal leaves, and two such maps with the same
    image of a minimal leaf agree on the nodes: automorphism_count is at least the number of these self-maps *)
Theorem autG_count_lower s q : is_autG g nv ev s -> In q (snd (canon_searchG g nv ev nnk nek)) ->
  In (map s q) (snd (canon_searchG g nv ev nnk nek)).
Proof.
  intros Hs Hq.
  destruct (leafG_shape q (min_leavesG_leaf q Hq)) as (pre & r & -> & Hr & Hi).
  assert (E : map s (pre ++ r) = map (extG g s) (pre ++ r)).
  { apply map_ext_in. intros v Hv. symmetry. apply extG_on. apply in_app_or in Hv.
    destruct Hv as [Hv|Hv]; [apply Hi; auto|apply (Permutation_in _ Hr Hv)]. }
  rewrite E. apply (Permutation_in _ (autG_rel g nv ev nnk nek s Hw Hs)). apply in_map. exact Hq.
Qed.
Theorem autG_determined (s s' : N -> N) q : In q (snd (canon_searchG g nv ev nnk nek)) -> map s q = map s' q ->
  forall v, In v (node_ids g) -> s v = s' v.
Proof.
  intros Hq E v Hv. destruct (leafG_shape q (min_leavesG_leaf q Hq)) as (pre & r & -> & Hr & _).
  apply (proj1 map_ext_in_iff E). apply in_or_app. right. apply (Permutation_in _ (Permutation_sym Hr)). exact Hv.
Qed.
End AutCount.

(** instances for the statements of props/C18.v *)
Theorem attr_count_lower_partial g t nk ek s q : wf g -> is_autG g (nvA g t nk) (evA ek) s ->
  In q (snd (canon_searchA g t nk ek)) -> In (map s q) (snd (canon_searchA g t nk ek)).
Proof. rewrite canon_searchA_G. intros Hw Hs Hq. apply autG_count_lower; auto. Qed.
Theorem spattr_count_lower_partial g t nk ek s q : wf g -> is_autG g (fun v => map (nval g t v) nk) (fun a => map (evalS a) ek) s ->
  In q (snd (canon_searchS g t nk ek)) -> In (map s q) (snd (canon_searchS g t nk ek)).
Proof. intros Hw Hs Hq. unfold canon_searchS in *. apply autG_count_lower; auto. Qed.
