(** C05 — the component-aware and the fallback strategy commute with renumbering (literal, list level):
    connected components (lib/Reach.v saturation, networkx order), per-component enumeration, the length sort and
    the back-tracking combination of model/C06_Model.v; composed with proof/C05_Pipe.v into the result-list theorem for every
    strategy. Stdlib lists. *)
From Coq Require Import List ZArith.
From SK Require Import lib.LGraph lib.Reach.
From SK Require Import model.C03_Model model.C05_Model proof.C05_Proof proof.C05_Glue proof.C05_Pipe.
Import ListNotations.

Section WithThr.
Context {TH : Thr}.


Section NodeLists.
  Variable f : N -> N.
  Hypothesis Hf : inj f.

  Lemma lmem_map x l : LGraph.mem (f x) (map f l) = LGraph.mem x l.
  Proof.
    unfold LGraph.mem. induction l as [|y r IH]; simpl; [reflexivity|]. rewrite (inj_eqb f x y Hf), IH. reflexivity.
  Qed.
  Lemma rmem_map x l : Reach.mem (f x) (map f l) = Reach.mem x l.
  Proof. exact (lmem_map x l). Qed.

  Lemma add_all_map l : forall S, add_all (map f l) (map f S) = map f (add_all l S).
  Proof.
    induction l as [|x l IH]; intros S; simpl; [reflexivity|].
    rewrite rmem_map. destruct (Reach.mem x S); [apply IH | apply (IH (x :: S))].
  Qed.

  Lemma nbrs_relabel {A B} (g : lgraph A B) u : nbrs (relabel f g) (f u) = map f (nbrs g u).
  Proof.
    unfold nbrs, relabel; simpl. rewrite flat_map_map', map_flat_map'. apply flat_map_ext. intros [[a b] x].
    rewrite !(inj_eqb f _ _ Hf). destruct (N.eqb a u); [reflexivity|]. destruct (N.eqb b u); reflexivity.
  Qed.

  Lemma step_map {A B} (g : lgraph A B) S : step (nbrs (relabel f g)) (map f S) = map f (step (nbrs g) S).
  Proof.
    unfold step. rewrite <- add_all_map. f_equal.
    rewrite flat_map_map', map_flat_map'. apply flat_map_ext. intros u. apply nbrs_relabel.
  Qed.

  Lemma saturate_map {A B} (g : lgraph A B) fuel : forall S,
    saturate (nbrs (relabel f g)) fuel (map f S) = option_map (map f) (saturate (nbrs g) fuel S).
  Proof.
    induction fuel as [|k IH]; intros S; simpl; [reflexivity|].
    rewrite step_map, !map_length. destruct (length (step (nbrs g) S) =? length S)%nat; [reflexivity | apply IH].
  Qed.

  Lemma comp_of_relabel (g : C06_Model.graph) u : C06_Model.comp_of (relabel f g) (f u) = map f (C06_Model.comp_of g u).
  Proof.
    unfold C06_Model.comp_of. change [f u] with (map f [u]).
    replace (length (gnodes (relabel f g))) with (length (gnodes g))
      by (unfold relabel; cbn [gnodes]; rewrite map_length; reflexivity).
    rewrite saturate_map.
    destruct (saturate (nbrs g) (S (length (gnodes g))) [u]); reflexivity.
  Qed.

  Lemma filter_mem_map c l :
    filter (fun x => LGraph.mem x (map f c)) (map f l) = map f (filter (fun x => LGraph.mem x c) l).
  Proof. apply filter_map_comm. intros x. apply lmem_map. Qed.

  Lemma comps_go_relabel (g : C06_Model.graph) todo : forall seen,
    C06_Model.comps_go (relabel f g) (map f todo) (map f seen) = map (map f) (C06_Model.comps_go g todo seen).
  Proof.
    induction todo as [|u r IH]; intros seen; simpl; [reflexivity|].
    rewrite lmem_map. destruct (LGraph.mem u seen); [apply IH|].
    rewrite comp_of_relabel, (node_ids_relabel _ _ f g), filter_mem_map. cbn [map]. f_equal.
    rewrite <- map_app. apply IH.
  Qed.

  Lemma comps_relabel (g : C06_Model.graph) : C06_Model.comps (relabel f g) = map (map f) (C06_Model.comps g).
  Proof. unfold C06_Model.comps. rewrite (node_ids_relabel _ _ f g). apply (comps_go_relabel g (node_ids g) []). Qed.
End NodeLists.

Section CompEquiv.
  Variables sg pi : N -> N.
  Hypothesis sg_inj : inj sg.
  Hypothesis pi_inj : inj pi.
  Variables enum enum' : list N -> list N -> list C06_Model.mapping.
  Hypothesis Henum : forall hn pn, enum' (map pi hn) (map sg pn) = map (mv sg pi) (enum hn pn).

  Definition tag (im : nat * C06_Model.mapping) : nat * C06_Model.mapping := (fst im, mv sg pi (snd im)).
  Definition mapres (r : list C06_Model.mapping * N) : list C06_Model.mapping * N := (map (mv sg pi) (fst r), snd r).

  Lemma cc_inner_map cap thr i it : forall maps n,
    C06_Model.cc_inner cap thr i (map (mv sg pi) it) (map tag maps) n
    = option_map (fun r : list (nat * C06_Model.mapping) * N => (map tag (fst r), snd r)) (C06_Model.cc_inner cap thr i it maps n).
  Proof.
    induction it as [|m it IH]; intros maps n; simpl; [reflexivity|].
    destruct (C06_Model.capped cap (N.succ n)); [reflexivity|].
    destruct (thr <? N.succ n)%N; [reflexivity|]. apply (IH ((i, m) :: maps)).
  Qed.

  Definition tagc (ic : nat * list N) : nat * list N := (fst ic, map pi (snd ic)).

  Lemma cc_outer_map cap thr pc cands : forall maps n,
    C06_Model.cc_outer enum' cap thr (map sg pc) (map tagc cands) (map tag maps) n
    = option_map (map tag) (C06_Model.cc_outer enum cap thr pc cands maps n).
  Proof.
    induction cands as [|[i hc] r IH]; intros maps n; simpl.
    - cbn [option_map]. rewrite map_rev. reflexivity.
    - rewrite Henum, cc_inner_map.
      destruct (C06_Model.cc_inner cap thr i (enum hc pc) maps n) as [[maps' n']|]; simpl; [|reflexivity].
      destruct (C06_Model.capped cap n'); [cbn [option_map]; rewrite map_rev; reflexivity | apply IH].
  Qed.

  Lemma index_from_map {X Y} (g : X -> Y) (l : list X) : forall k,
    C06_Model.index_from k (map g l) = map (fun ix : nat * X => (fst ix, g (snd ix))) (C06_Model.index_from k l).
  Proof. induction l as [|x r IH]; intros k; simpl; [reflexivity | rewrite IH; reflexivity]. Qed.

  Lemma filter_len_map (k : nat) (hcs : list (nat * list N)) :
    filter (fun ih : nat * list N => k <=? length (snd ih))%nat (map tagc hcs)
    = map tagc (filter (fun ih : nat * list N => k <=? length (snd ih))%nat hcs).
  Proof. apply filter_map_comm. intros [i hc]. simpl. rewrite map_length. reflexivity. Qed.

  Lemma per_cc_all_map cap thr hcs pcs :
    C06_Model.per_cc_all enum' cap thr (map tagc hcs) (map (map sg) pcs)
    = option_map (map (map tag)) (C06_Model.per_cc_all enum cap thr hcs pcs).
  Proof.
    induction pcs as [|pc r IH]; simpl; [reflexivity|].
    rewrite map_length, filter_len_map.
    destruct (filter (fun ih : nat * list N => length pc <=? length (snd ih))%nat hcs) as [|c cs] eqn:E; [reflexivity|].
    pose proof (cc_outer_map cap thr pc (c :: cs) [] 0%N) as Ho. simpl (map tag []) in Ho.
    cbn [map] in Ho. cbn [map]. rewrite Ho.
    destruct (C06_Model.cc_outer enum cap thr pc (c :: cs) [] 0%N) as [[|x xs]|]; simpl; [reflexivity| |reflexivity].
    rewrite IH. destruct (C06_Model.per_cc_all enum cap thr hcs r); reflexivity.
  Qed.

  Lemma insert_len_map {X Y} (g : X -> Y) (x : list X) l :
    C06_Model.insert_len (map g x) (map (map g) l) = map (map g) (C06_Model.insert_len x l).
  Proof.
    induction l as [|y r IH]; simpl; [reflexivity|]. rewrite !map_length.
    destruct (length x <=? length y)%nat; [reflexivity|]. simpl. rewrite IH. reflexivity.
  Qed.
  Lemma sort_len_map {X Y} (g : X -> Y) (l : list (list X)) :
    C06_Model.sort_len (map (map g) l) = map (map g) (C06_Model.sort_len l).
  Proof.
    unfold C06_Model.sort_len. induction l as [|x r IH]; simpl; [reflexivity|]. rewrite IH. apply insert_len_map.
  Qed.

  Lemma clash_mv m acc : C06_Model.clash (mv sg pi m) (mv sg pi acc) = C06_Model.clash m acc.
  Proof.
    unfold C06_Model.clash.
    assert (E : map fst (mv sg pi acc) = map sg (map fst acc)) by (unfold mv; rewrite !map_map; reflexivity).
    rewrite E. unfold mv. induction m as [|[p h] r IH]; simpl; [reflexivity|].
    rewrite (lmem_map sg sg_inj), IH. reflexivity.
  Qed.

  Lemma snd_mapres r : snd (mapres r) = snd r.
  Proof. reflexivity. Qed.

  Lemma bt_map maxr thr ordered : forall used acc res,
    C06_Model.bt maxr thr (map (map tag) ordered) used (mv sg pi acc) (mapres res)
    = mapres (C06_Model.bt maxr thr ordered used acc res).
  Proof.
    induction ordered as [|lvl rest IH]; intros used acc res.
    - simpl. destruct (C06_Model.stop maxr thr (snd res)); reflexivity.
    - cbn [map C06_Model.bt]. rewrite snd_mapres.
      destruct (C06_Model.stop maxr thr (snd res)); [reflexivity|].
      revert res. induction lvl as [|[hi m] cs IHl]; intros res; [reflexivity|].
      cbn [map tag fst snd].
      rewrite clash_mv.
      destruct (C06_Model.memnat hi used || C06_Model.clash m acc)%bool; [apply IHl|].
      assert (E : C06_Model.bt maxr thr (map (map tag) rest) (hi :: used) (mv sg pi m ++ mv sg pi acc) (mapres res)
                  = mapres (C06_Model.bt maxr thr rest (hi :: used) (m ++ acc) res)).
      { replace (mv sg pi m ++ mv sg pi acc) with (mv sg pi (m ++ acc)) by (unfold mv; rewrite map_app; reflexivity). apply IH. }
      rewrite !E, snd_mapres.
      destruct (C06_Model.stop maxr thr (snd (C06_Model.bt maxr thr rest (hi :: used) (m ++ acc) res))); [reflexivity | apply IHl].
  Qed.
End CompEquiv.

(** [find_subgraph_mappings] without the pre-filter: every strategy, any result limit, both values of strict_cc_count *)
Lemma find_relabel strat maxr strict sg pi (Hs : inj sg) (Hp : inj pi) (H P : C06_Model.graph) :
  C06_Model.find (monos_on' (relabel pi H) (relabel sg P)) (C06_Model.Cfg strat maxr thr_val strict false) (relabel pi H) (relabel sg P)
  = map (mv sg pi) (C06_Model.find (monos_on' H P) (C06_Model.Cfg strat maxr thr_val strict false) H P).
Proof.
  assert (Henum : forall hn pn, monos_on' (relabel pi H) (relabel sg P) (map pi hn) (map sg pn) = map (mv sg pi) (monos_on' H P hn pn))
    by (intros; apply monos_on'_relabel; assumption).
  assert (Hall : C06_Model.find_all (monos_on' (relabel pi H) (relabel sg P)) maxr thr_val (relabel pi H) (relabel sg P)
                 = map (mv sg pi) (C06_Model.find_all (monos_on' H P) maxr thr_val H P)).
  { unfold C06_Model.find_all. rewrite !node_ids_relabel, Henum.
    apply (all_loop_map (mv sg pi) maxr thr_val _ [] 0%N). }
  assert (Hcomp : C06_Model.find_comp (monos_on' (relabel pi H) (relabel sg P)) maxr thr_val strict (relabel pi H) (relabel sg P)
                  = map (mv sg pi) (C06_Model.find_comp (monos_on' H P) maxr thr_val strict H P)).
  { unfold C06_Model.find_comp. rewrite (comps_relabel pi Hp H), (comps_relabel sg Hs P), !map_length.
    destruct (length (C06_Model.comps P) =? 0)%nat; [reflexivity|].
    destruct (length (C06_Model.comps H) <? length (C06_Model.comps P))%nat; [exact Hall|].
    destruct ((length (C06_Model.comps P) <? length (C06_Model.comps H))%nat && strict)%bool; [reflexivity|].
    rewrite (index_from_map (map pi) (C06_Model.comps H) 0).
    pose proof (per_cc_all_map sg pi (monos_on' H P) (monos_on' (relabel pi H) (relabel sg P)) Henum
                  (C06_Model.cc_cap maxr (length (C06_Model.comps P))) thr_val
                  (C06_Model.index_from 0 (C06_Model.comps H)) (C06_Model.comps P)) as Hper.
    unfold tagc in Hper. rewrite Hper.
    destruct (C06_Model.per_cc_all (monos_on' H P) _ thr_val _ (C06_Model.comps P)) as [per|]; simpl; [|reflexivity].
    rewrite (sort_len_map (tag sg pi) per).
    pose proof (bt_map sg pi Hs maxr thr_val (C06_Model.sort_len per) [] [] ([], 0%N)) as Hbt.
    unfold mapres in Hbt at 1. simpl (map (mv sg pi) (fst ([], 0%N))) in Hbt. simpl (mv sg pi []) in Hbt. simpl (snd ([], 0%N)) in Hbt.
    transitivity (rev (fst (mapres sg pi (C06_Model.bt maxr thr_val (C06_Model.sort_len per) [] [] ([], 0%N))))).
    - f_equal. f_equal. exact Hbt.
    - unfold mapres. cbn [fst]. rewrite map_rev. reflexivity. }
  assert (Hbt : C06_Model.find_bt (monos_on' (relabel pi H) (relabel sg P)) maxr thr_val strict (relabel pi H) (relabel sg P)
                = map (mv sg pi) (C06_Model.find_bt (monos_on' H P) maxr thr_val strict H P)).
  { unfold C06_Model.find_bt. rewrite Hcomp.
    destruct (C06_Model.find_comp (monos_on' H P) maxr thr_val strict H P); [exact Hall | reflexivity]. }
  (* the final guard only looks at the length *)
  assert (Hguard : forall r r' : list C06_Model.mapping, r' = map (mv sg pi) r ->
            (if (thr_val <? C06_Model.lenN r')%N then [] else r') = map (mv sg pi) (if (thr_val <? C06_Model.lenN r)%N then [] else r)).
  { intros r r' ->. rewrite lenN_map. destruct (thr_val <? _)%N; reflexivity. }
  unfold C06_Model.find; simpl. apply Hguard.
  destruct strat as [|[s|s|]]; [exact Hall | exact Hbt | exact Hbt | exact Hcomp].
Qed.

Lemma matches_relabel strat sg pi (Hs : inj sg) (Hp : inj pi) (host : hostg) (pat : molg) :
  matches strat (relabel pi host) (relabel sg pat) = map (mv sg pi) (matches strat host pat).
Proof. unfold matches. rewrite host_c06_relabel, pat_c06_relabel. apply find_relabel; assumption. Qed.

(** ** kept matches, glued graphs and the result list, every strategy, pattern without explicit X-H bonds *)
Lemma kept_relabel strat sg pi (Hs : inj sg) (Hp : inj pi) host p :
  kept_of strat (relabel pi host) (relabel_prep sg p) = map (mv sg pi) (kept_of strat host p).
Proof.
  unfold kept_of, raw_of; simpl. rewrite matches_relabel by assumption. apply prune_relabel; assumption.
Qed.

Lemma glued_relabel strat sg pi (Hs : inj sg) (Hp : inj pi) host p :
  p_flag p = false ->
  glued_of strat (relabel pi host) (relabel_prep sg p) = map (relabel pi) (glued_of strat host p).
Proof.
  intros Hflag. unfold glued_of. rewrite kept_relabel by assumption.
  rewrite flat_map_map', map_flat_map'. apply flat_map_ext. intros m.
  unfold glue_all, glue_base; simpl. rewrite Hflag. simpl. rewrite !app_nil_r.
  rewrite glue_equivariant by assumption. destruct (glue host (p_rc p) m); reflexivity.
Qed.

Lemma results_relabel strat sg pi (Hs : inj sg) (Hp : inj pi) host p :
  p_flag p = false ->
  results_of false strat (relabel pi host) (relabel_prep sg p) = option_map (map (relabel pi)) (results_of false strat host p).
Proof. intros Hflag. unfold results_of. simpl. rewrite glued_relabel by assumption. reflexivity. Qed.

End WithThr.
