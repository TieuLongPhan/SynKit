(** C11 (round 6) — the bridge between C11's representation of the rule centre ([graph]: interned labels, what C11's
    correspondence evaluates: [to_rule_graph [K_atom_map] ag]) and C03's ([its]: typed ITS nodes and bonds, what the gluing
    model runs on).  Both symmetry lists are instances of ONE verified enumerator (lib/Mono.v [extend]); if the two graphs
    have the same node list and AGREE on which atoms carry equal labels and which atom pairs carry equal bonds
    ([agreeb], a computation over the node list), the two lists are literally equal, C11's pruning step is C05's, and
    clause 4 holds for C11's own [prune] with the C03 gluing: same set of glued ITS graphs with and without the pruning.
    Stdlib lists. *)
From Coq Require Import List NArith Bool.
From SK Require Import lib.LGraph lib.Mono.
From SK Require model.C06_Model model.C11_Model.
From SK Require proof.C11_Aut proof.C11_Dedup.
From SK Require Import model.C03_Model model.C05_Model model.C11_Agree proof.C05_Proof proof.C05_Set proof.C05_Enum
     proof.C11_Glue.
Import ListNotations.

Lemma forallb_ext_in {X} (f g : X -> bool) l : (forall x, In x l -> f x = g x) -> forallb f l = forallb g l.
Proof.
  induction l as [|x r IH]; simpl; intros H; [reflexivity|].
  rewrite (H x (or_introl eq_refl)), IH; [reflexivity|]. intros y Hy. apply H. right. exact Hy.
Qed.

(** ---------- the enumerator depends on its parameters only through the tests on listed nodes ---------- *)
Section Ext.
Variables A B A' B' : Type.
Variable hn : list N.
Variables (pl hl : N -> A) (pe he : N -> N -> option B) (nm : A -> A -> bool) (em : B -> B -> bool).
Variables (pl' hl' : N -> A') (pe' he' : N -> N -> option B') (nm' : A' -> A' -> bool) (em' : B' -> B' -> bool).
Variable induced : bool.
Variable P : list N.       (* the pattern nodes *)
Hypothesis Hnm : forall p h, In p P -> In h hn -> nm (hl h) (pl p) = nm' (hl' h) (pl' p).
Hypothesis Hem : forall p h p' h', In p P -> In h hn -> In p' P -> In h' hn ->
  edge_ok pe he em induced p h (p', h') = edge_ok pe' he' em' induced p h (p', h').

Lemma extend_agree ps : forall acc, incl ps P -> (forall ph, In ph acc -> In (fst ph) P /\ In (snd ph) hn) ->
  extend hn pl hl pe he nm em induced ps acc = extend hn pl' hl' pe' he' nm' em' induced ps acc.
Proof.
  induction ps as [|p r IH]; intros acc Hps Hacc; [reflexivity|]. simpl.
  assert (Hp : In p P) by (apply Hps; left; reflexivity).
  assert (Hr : incl r P) by (intros x Hx; apply Hps; right; exact Hx).
  assert (Hall : forall hs, incl hs hn ->
            flat_map (fun h => if ok pl hl pe he nm em induced p h acc then extend hn pl hl pe he nm em induced r ((p, h) :: acc) else []) hs =
            flat_map (fun h => if ok pl' hl' pe' he' nm' em' induced p h acc then extend hn pl' hl' pe' he' nm' em' induced r ((p, h) :: acc) else []) hs).
  { induction hs as [|h hs IHh]; intros Hhs; [reflexivity|]. simpl.
    assert (Hh : In h hn) by (apply Hhs; left; reflexivity).
    assert (Eok : ok pl hl pe he nm em induced p h acc = ok pl' hl' pe' he' nm' em' induced p h acc).
    { unfold ok. rewrite (Hnm p h Hp Hh). f_equal. apply forallb_ext_in.
      intros [p' h'] Hin. destruct (Hacc _ Hin) as [H1 H2]. exact (Hem p h p' h' Hp Hh H1 H2). }
    rewrite Eok, IHh; [|intros x Hx; apply Hhs; right; exact Hx].
    destruct (ok pl' hl' pe' he' nm' em' induced p h acc); [|reflexivity].
    rewrite (IH ((p, h) :: acc) Hr); [reflexivity|].
    intros ph [<-|Hin]; [split; assumption | exact (Hacc ph Hin)]. }
  apply Hall. apply incl_refl.
Qed.
End Ext.

(** ---------- agreement of the two representations of one rule centre: [agreeb] (model/C11_Agree.v) ---------- *)
Theorem rule_auts_agree (g : C11_Model.graph) (rc : its) : agreeb g rc = true ->
  node_ids g = node_ids rc /\ C11_Model.rule_auts g = rule_auts rc /\
  forall raw : list mapping, C11_Model.prune (fun m : mapping => m) g raw = prune rc raw.
Proof.
  unfold agreeb. intros H. apply andb_prop in H. destruct H as [H He]. apply andb_prop in H. destruct H as [Hi Hn].
  apply C11_Aut.leqb_eq in Hi.
  assert (Ea : C11_Model.rule_auts g = rule_auts rc).
  { unfold C11_Model.rule_auts, C11_Model.auts, rule_auts. rewrite monos'_eq. unfold monos. rewrite Hi.
    apply (extend_agree _ _ _ _ (node_ids rc) _ _ _ _ _ _ _ _ _ _ _ _ true (node_ids rc)).
    - intros p h Hp Hh. rewrite forallb_forall in Hn. specialize (Hn p Hp). rewrite forallb_forall in Hn.
      specialize (Hn h Hh). apply eqb_prop in Hn. exact Hn.
    - intros p h p' h' Hp Hh Hp' Hh'. rewrite forallb_forall in He. specialize (He p Hp). rewrite forallb_forall in He.
      specialize (He h Hh). rewrite forallb_forall in He. specialize (He p' Hp'). rewrite forallb_forall in He.
      specialize (He h' Hh'). apply eqb_prop in He. exact He.
    - apply incl_refl.
    - intros ph []. }
  split; [exact Hi|]. split; [exact Ea|].
  intros raw. unfold C11_Model.prune, prune. rewrite Ea. reflexivity.
Qed.

(** ---------- clause 4 for C11's own pruning step, gluing = C03's model, no premise about gluing ---------- *)
Theorem c11_prune_same_glue (g : C11_Model.graph) (rc : its) (host : hostg) (raw : list mapping) :
  agreeb g rc = true -> rc_ok rc -> (forall m, In m raw -> match_ok host rc m) ->
  let kept := C11_Model.prune (fun m : mapping => m) g raw in
  (forall k, In k kept -> In k raw) /\
  (forall m T, In m raw -> glue host rc m = Some T ->
     exists k T', In k kept /\ glue host rc k = Some T' /\ obs_eq T T') /\
  (forall T, In T (flat_map (glue1 host rc) raw) -> exists T', In T' (flat_map (glue1 host rc) kept) /\ obs_eq T T') /\
  (forall T', In T' (flat_map (glue1 host rc) kept) -> In T' (flat_map (glue1 host rc) raw)).
Proof.
  intros Hag R Hok kept. unfold kept. rewrite (proj2 (proj2 (rule_auts_agree g rc Hag)) raw).
  destruct (prune_same_glue host rc raw R Hok) as (_ & H1 & H2 & H3 & H4). repeat split; assumption.
Qed.

From SK Require Import proof.C05_Examples.
(** non-vacuity: C11's encoding of the metathesis rule centre (interned labels: one atom label, two bond labels) *)
Definition mt_g : C11_Model.graph :=
  LG [(1%N, (0%N, 0%N, 0%N)); (3%N, (0%N, 0%N, 0%N)); (2%N, (0%N, 0%N, 0%N)); (4%N, (0%N, 0%N, 0%N))]
     [(1%N, 3%N, (0%N, 1%N)); (1%N, 2%N, (0%N, 2%N)); (3%N, 4%N, (0%N, 2%N)); (2%N, 4%N, (0%N, 1%N))].
Example ex_bridge :
  agreeb mt_g mt_rc = true /\ C11_Model.wfb mt_g = true /\ length (C11_Model.rule_auts mt_g) = 4%nat /\
  length (C11_Model.prune (fun m : mapping => m) mt_g mt_raw) = 2%nat /\
  length (flat_map (glue1 mt_host mt_rc) (C11_Model.prune (fun m : mapping => m) mt_g mt_raw)) = 2%nat.
Proof. vm_compute. repeat split. Qed.
