(** C08 — directed inputs, exact back-end: the model's search on a DiGraph ([dnsearch], model/C08_Digraph.v) is the
    generic pruned search of C08_IR.v instantiated with the successor-based signature [dsigN] and the label [dnlabel]
    that reads both triangles of the matrix; its result is a permutation of the node set (faithful, onto 1..N). *)
From Coq Require Import List NArith ZArith Bool Arith Lia Permutation.
From SK Require Import lib.LGraph lib.IRSortKeys lib.IRCore lib.IRSearch lib.StrJoin.
From SK Require Import model.C08_Model model.C08_Digraph proof.C08_Spec proof.C08_Sort proof.C08_IR proof.C08_Faithful proof.C08_Nauty.
From SK Require lib.IRInst.
Import ListNotations.

Notation dgs g := (gsearch _ lexleb (dsigN g) (rfuel g) (children g) _ strleb (dnlabel g) (npartial g)).
Notation dlv g := (leaves2 _ lexleb (dsigN g) (rfuel g) (children g)).

Lemma dnsearch_gs g fuel : forall P pre a, dnsearch g fuel P pre a = dgs g fuel P pre a.
Proof.
  induction fuel as [|f IH]; intros P pre a; [reflexivity|].
  cbn [dnsearch gsearch]. unfold dnrefine, dnvisit, npruned.
  destruct (first_big (refine lexleb (dsigN g) (rfuel g) P)); [|reflexivity].
  apply fold_left_ext_in. intros a' v _. destruct (pruned strleb (npartial g) a' (pre ++ [v])); auto.
Qed.

Lemma dnsearch_tr_fst g fuel : forall P pre s, fst (dnsearch_tr g fuel P pre s) = dnsearch g fuel P pre (fst s).
Proof.
  induction fuel as [|f IH]; intros P pre s; [reflexivity|].
  cbn [dnsearch dnsearch_tr].
  destruct (first_big (dnrefine g P)) as [i|]; [|reflexivity].
  set (l := children g (nth i (dnrefine g P) [])). clearbody l.
  change (fst s) with (fst (fst s, snd s ++ [(P, dnrefine g P)])) at 2.
  generalize (fst s, snd s ++ [(P, dnrefine g P)]). intros s0. revert s0.
  induction l as [|v l IHl]; intros s0; cbn [fold_left]; auto.
  rewrite IHl. f_equal. unfold trace in *.
  destruct (npruned g (fst s0) (pre ++ [v])); [reflexivity|apply IH].
Qed.

(* the partial label (node segment of the prefix + "{"*1000) is a lower bound of every label below the prefix *)
Lemma dpartial_lb_str g pre r : pre <> [] -> strleb (npartial g pre) (dnlabel g (pre ++ r)) = true.
Proof.
  intros Hpre. unfold npartial, dnlabel, node_seg. rewrite map_app, join_app by (destruct pre; simpl; congruence).
  rewrite <- app_assoc. apply strleb_common.
  change (repeat 123%N 1000) with (123%N :: repeat 123%N 999).
  destruct (map (node_str g) r); reflexivity.
Qed.
Theorem dnsearch_is_fold g fuel P pre a :
  dnsearch g fuel P pre a = fold_left (visit strleb (dnlabel g)) (dlv g fuel P pre) a.
Proof. rewrite dnsearch_gs. apply search_is_fold. apply dpartial_lb_str. Qed.

Theorem dnauty_perm_leaf g : NoDup (node_ids g) ->
  In (dnauty_perm g) (dlv g (sfuel g) (init_partition g) []) /\ dnauty_label g = Some (dnlabel g (dnauty_perm g)).
Proof.
  intros Hnd. unfold dnauty_perm, dnauty_label, dnauty_acc. rewrite dnsearch_gs.
  destruct (search_best_leaf g (dsigN g) _ _ _ (dpartial_lb_str g) (init_vpart g) Hnd) as (bp & -> & I). auto.
Qed.

Theorem dnauty_perm_perm g : NoDup (node_ids g) -> Permutation (dnauty_perm g) (node_ids g).
Proof. intros Hnd. apply (search_leaf_perm g (dsigN g) _ (init_vpart g) Hnd). apply dnauty_perm_leaf. exact Hnd. Qed.

Theorem faithful_dnauty g : NoDup (node_ids g) -> faithful g (dcanon_nauty g).
Proof. intros Hnd. apply relabel_order_spec; [exact Hnd|apply dnauty_perm_perm; exact Hnd]. Qed.

Theorem onto_dnauty g : NoDup (node_ids g) -> onto_1N g (dcanon_nauty g).
Proof. intros Hnd. apply relabel_order_spec; [exact Hnd|apply dnauty_perm_perm; exact Hnd]. Qed.

(* non-vacuity: the digraph 1->2, 1->4, 2->3 on four equal atoms (the witness of repair R5b): canonical ids 1..4, and the
   copy with 3 and 4 exchanged gets the same canonical arc set *)
Definition dn_g : graph :=
  LG [(1%N, NA [67%N] false 0 0 None); (2%N, NA [67%N] false 0 0 None); (3%N, NA [67%N] false 0 0 None); (4%N, NA [67%N] false 0 0 None)]
     [(1%N, 2%N, EA 2 None); (1%N, 4%N, EA 2 None); (2%N, 3%N, EA 2 None)].
Definition dn_h : graph :=
  LG [(1%N, NA [67%N] false 0 0 None); (2%N, NA [67%N] false 0 0 None); (4%N, NA [67%N] false 0 0 None); (3%N, NA [67%N] false 0 0 None)]
     [(1%N, 2%N, EA 2 None); (1%N, 3%N, EA 2 None); (2%N, 4%N, EA 2 None)].
Example ex_dnauty_ids : NoDup (node_ids dn_g) /\ Permutation (node_ids (dcanon_nauty dn_g)) [1%N; 2%N; 3%N; 4%N]
                        /\ dser_nauty dn_g = dser_nauty dn_h /\ gedges dn_g <> gedges dn_h.
Proof.
  assert (Nd : NoDup (node_ids dn_g)) by (repeat constructor; simpl; intuition discriminate).
  split; [exact Nd|]. split; [exact (onto_dnauty dn_g Nd)|]. split; [vm_compute; reflexivity|discriminate].
Qed.

Print Assumptions faithful_dnauty.
Print Assumptions onto_dnauty.
