(** C16 — parse_rxns with explicit per-line rules (tuples / mapping / rules=): which source of the rule wins, and the two
    round trips that go through this entry point. *)
From stdpp Require Import gmap strings sets pretty sorting.
From Coq Require Import Ascii.
From SK Require Import lib.Tok model.C15_Model proof.C15_Proof model.C16_Model proof.C16_Defs proof.C16_Chars proof.C16_Str.
Local Open Scope string_scope.
Local Open Scope list_scope.

(** the network items in printing order *)
Definition print_items (H : net) (sort : bool) : list (string * rxn) :=
  if sort then sort_by_key (map_to_list (edges H)) else edge_seq H.
Lemma printed_lines H ir ii sort :
  hypergraph_to_rxn_strings H ir ii sort = (λ p, fmt_line ir ii p.1 p.2) <$> print_items H sort.
Proof. reflexivity. Qed.
Lemma print_items_perm H sort : wf_order H → print_items H sort ≡ₚ map_to_list (edges H).
Proof. intros Ho. unfold print_items. destruct sort; [apply merge_sort_Permutation|by apply edge_seq_perm]. Qed.

(** * the suffix test of parse_rxns *)
Lemma bar_rule_search_free l : Forall (λ a, is_char "|" a = false) l → bar_rule_search l = false.
Proof. induction 1 as [|a l Ha _ IH]; [done|]. cbn. by rewrite Ha, IH. Qed.
Lemma bar_rule_search_hit x y : is_Some (rule_at (drop_while py_space y)) → bar_rule_search (x ++ "|"%char :: y) = true.
Proof.
  intros Hy. induction x as [|a x IH]; cbn.
  - by rewrite bool_decide_eq_true_2.
  - rewrite IH. apply orb_true_r.
Qed.

(** * printed lines *)
Lemma fmt_line_plain_chars e rx : to_chars (fmt_line false false e rx) = plain_chars rx.
Proof. unfold fmt_line, plain_chars, side_chars, arrow_sep. cbn. by rewrite !to_chars_app. Qed.

Lemma line_has_rule_suffix ii e rx : rxn_ok rx → bar_rule_search (line_chars ii e rx) = true.
Proof.
  intros (Hrule & _). rewrite line_chars_split. apply bar_rule_search_hit.
  assert (drop_while py_space (meta_chars ii e rx) = to_chars "rule=" ++ to_chars (r_rule rx) ++ id_tail ii e) as -> by done.
  rewrite rule_at_printed; [eauto|done|]. unfold id_tail. destruct ii; [right; by eexists|by left].
Qed.

(** a line printed without suffix, parsed with an explicit rule *)
Lemma add_from_str_plain s rx r : side_labels_ok (r_lhs rx) = true → side_labels_ok (r_rhs rx) = true → rxn_empty rx = false →
  ∃ s' e', add_from_str s (of_chars (plain_chars rx)) (Some r) false = (s', None) ∧ edges s !! e' = None ∧
           edges s' = <[ e' := Rxn (norm_rule r) (r_lhs rx) (r_rhs rx) ]> (edges s).
Proof.
  intros Hl Hr Hem. destruct (add_core_plain s rx (Some r) [] Hl Hr Hem) as (s' & e' & Heq & ? & ? & _); [constructor|].
  rewrite app_nil_r in Heq. exists s', e'. split; [|done]. by rewrite add_from_str_whole, to_of_chars.
Qed.

Lemma parse_item_plain s rx r dr ps pf :
  side_labels_ok (r_lhs rx) = true → side_labels_ok (r_rhs rx) = true →
  parse_item s (of_chars (plain_chars rx)) (Some r) dr ps pf = add_from_str s (of_chars (plain_chars rx)) (Some r) false.
Proof.
  intros Hl Hr. unfold parse_item. rewrite to_of_chars, bar_rule_search_free by (by apply plain_chars_bar_free).
  by destruct (pf && ps).
Qed.
Lemma parse_item_suffixed s ii e rx (q : option string) dr : rxn_ok rx →
  parse_item s (of_chars (line_chars ii e rx)) q dr true true = add_from_str s (of_chars (line_chars ii e rx)) None true.
Proof.
  intros Hok. unfold parse_item. destruct q; [|by rewrite (rule_or_default_line ii e rx dr Hok)].
  cbn [andb]. by rewrite to_of_chars, line_has_rule_suffix.
Qed.

(** * round trips through parse_rxns with explicit rules *)
(** rules carried out of band: lines printed WITHOUT suffixes, each paired with the rule of its reaction (tuples, mapping or
    rules=), any parser flags *)
Lemma strings_roundtrip_explicit_rules (H : net) (sort : bool) (dr : string) (ps pf : bool) :
  wf16 H → strings_domain H = true →
  (parse_items empty_net ((λ p, (fmt_line false false p.1 p.2, Some (r_rule p.2))) <$> print_items H sort) dr ps pf).2 = None ∧
  rxns_of (parse_items empty_net ((λ p, (fmt_line false false p.1 p.2, Some (r_rule p.2))) <$> print_items H sort) dr ps pf).1
    ≡ₚ rxns_of H.
Proof.
  intros (Hwf & _ & Hord & _) Hdom. pose proof (print_items_perm H sort Hord) as Hperm.
  pose proof (domain_items_ok H _ Hwf Hdom Hperm) as Hok.
  destruct (parse_items_fresh_empty (λ p : string * rxn, (fmt_line false false p.1 p.2, Some (r_rule p.2))) snd dr ps pf
              (print_items H sort)) as [He Hp].
  { eapply Forall_impl; [exact Hok|]. intros [e rx] Hrx s. pose proof (rxn_ok_rule _ Hrx) as Hne.
    destruct Hrx as (Hrule & Hl & Hr & Hem). cbn [fst snd].
    rewrite <-(of_to_chars (fmt_line false false e rx)), fmt_line_plain_chars, parse_item_plain by done.
    destruct (add_from_str_plain s rx (r_rule rx) Hl Hr Hem) as (s1 & e1 & -> & Hfresh & Hedges).
    exists s1, e1. rewrite Hedges, norm_rule_id, rxn_eta by done. done. }
  split; [exact He|]. rewrite Hp. unfold rxns_of. by rewrite Hperm.
Qed.

(** lines printed WITH the rule suffix, parsed with [prefer_suffix]: the suffix wins over ANY explicit per-line rule *)
Lemma strings_roundtrip_prefer_suffix (H : net) (include_id sort : bool) (dr : string) (q : string → rxn → option string) :
  wf16 H → strings_domain H = true →
  (parse_items empty_net ((λ p, (fmt_line true include_id p.1 p.2, q p.1 p.2)) <$> print_items H sort) dr true true).2 = None ∧
  rxns_of (parse_items empty_net ((λ p, (fmt_line true include_id p.1 p.2, q p.1 p.2)) <$> print_items H sort) dr true true).1
    ≡ₚ rxns_of H.
Proof.
  intros (Hwf & _ & Hord & _) Hdom. pose proof (print_items_perm H sort Hord) as Hperm.
  pose proof (domain_items_ok H _ Hwf Hdom Hperm) as Hok.
  destruct (parse_items_fresh_empty (λ p : string * rxn, (fmt_line true include_id p.1 p.2, q p.1 p.2)) snd dr true true
              (print_items H sort)) as [He Hp].
  { eapply Forall_impl; [exact Hok|]. intros [e rx] Hrx s. pose proof (rxn_ok_rule _ Hrx) as Hne. cbn [fst snd].
    rewrite <-(of_to_chars (fmt_line true include_id e rx)), fmt_line_chars, parse_item_suffixed by done.
    destruct (add_from_str_line s include_id e rx Hrx) as (s' & e' & ? & ? & ? & _). eauto. }
  split; [exact He|]. rewrite Hp. unfold rxns_of. by rewrite Hperm.
Qed.

(** * non-vacuity *)
Definition ex_items_net : net :=
  mk_net [] [(None, "hyd", [("A", 1%Z); ("W", 1%Z)], [("B", 1%Z)]); (None, "con", [("B", 2%Z)], [("CC(=O)O", 12%Z); ("W", 1%Z)])] [].
Definition ex_items : list (string * option string) :=
  (λ p, (fmt_line false false p.1 p.2, Some (r_rule p.2))) <$> print_items ex_items_net true.
Example ex_items_printed : ex_items = [("2B >> 12CC(=O)O + W", Some "con"); ("A + W >> B", Some "hyd")].
Proof. by vm_compute. Qed.
Example ex_items_premises : bool_decide (wf16 ex_items_net) = true ∧ strings_domain ex_items_net = true.
Proof. by vm_compute. Qed.
(** without [prefer_suffix] an explicit rule wins and the suffix text is swallowed by the product side *)
Definition ex_items_explicit_wins : net :=
  (parse_items empty_net [("A >> B | rule=S", Some "X")] "r" true false).1.
Example ex_explicit_rule_wins : bool_decide (species ex_items_explicit_wins = {[ "A"; "B | rule=S" ]}) = true.
Proof. by vm_compute. Qed.

(** * the default rule of parse_rxns: a line WITHOUT a rule suffix gets [default_rule] also when suffix parsing is on
      (not add_rxn's "r"); a line with a rule suffix keeps its own rule *)
Lemma parse_rxns_one s line dr pf :
  parse_rxns s [line] dr true pf
  = add_from_str s line (match suffix_rule line with Some _ => None | None => Some dr end) true.
Proof. done. Qed.
Definition ex_dr_net : net := (rxns_to_hypergraph ["A+B>>C | rule=R1"; "2A>>D"; "C>>A | id=3"; "X >> Y | id=3 rule=Q"] "R0" true false).1.
Example ex_default_rule :
  suffix_rule "2A>>D" = None ∧ suffix_rule "C>>A | id=3" = None ∧ is_Some (suffix_rule "X >> Y | id=3 rule=Q") ∧
  ((λ p : string * rxn, (p.1, r_rule p.2)) <$> edge_seq ex_dr_net) = [("R1_1", "R1"); ("R0_1", "R0"); ("R0_2", "R0"); ("Q_1", "Q")].
Proof. split_and!; try (by vm_compute). vm_compute. eauto. Qed.
