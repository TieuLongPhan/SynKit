(** C19 — deficiency with the exact rank, and deficiency >= 0 for every network (MathComp style).
    Ties proof/C19_RankMC.v (abstract: rank S + l <= k) to the model through the index facts of proof/C19_Bridge.v, and
    the certified rank (lib/RankBridge.check_rank_sound) to \rank over rat. *)
From mathcomp Require Import ssreflect ssrfun ssrbool eqtype ssrnat seq fintype bigop ssralg matrix mxalgebra rat.
From mathcomp Require Import ssrZ zify.
From Coq Require Import ZArith.
From SK Require Import lib.RankBridge proof.C19_RankMC.
Require SK.model.C17_Model SK.model.C19_Model SK.proof.C17_Rank SK.proof.C19_Proof.
Require SK.proof.C19_Complexes SK.proof.C19_Linkage SK.proof.C19_Bridge.
Set Implicit Arguments. Unset Strict Implicit. Unset Printing Implicit Defensive.
Import GRing.Theory.
Local Open Scope ring_scope.

Lemma nth_ssr T (d : T) (s : seq T) n : nth d s n = List.nth n s d.
Proof. by elim: s n => [|a s IH] [|n] //=. Qed.

Lemma zrB x y : zr (x - y)%Z = zr x - zr y.
Proof.
have -> : (x - y)%Z = (x + (-1) * y)%Z by lia.
by rewrite zrD zrM /zr /= mulN1r.
Qed.

Lemma eqb_ord n (a b : 'I_n) : Nat.eqb a b = (a == b).
Proof. by rewrite -val_eqE /=; case: Nat.eqb_spec => [->|/eqP/negbTE ->]; rewrite ?eqxx. Qed.

Lemma getz_list M i j : getz M i j = List.nth j (List.nth i M nil) 0%Z.
Proof. by rewrite /getz !nth_ssr. Qed.

Section Net.
Variables (net : seq C17_Model.rxn) (iso : seq C17_Model.str).
Let cs := fst (C19_Model.complex_graph net iso).
Let arcs := snd (C19_Model.complex_graph net iso).
Let k := length cs.
Let L := C19_Model.linkage_classes arcs k.
Let l := length L.
Let m := length (C17_Model.species_order net iso).
Let r := length (C17_Model.reaction_order net).
Let S := C17_Model.build_S net iso.

Let OK : C19_Complexes.arcs_ok arcs k := C19_Complexes.complex_graph_arcs_ok net iso.

Lemma u_lt (j : 'I_r) : (C19_Bridge.arc_u net iso j < k)%nat.
Proof. apply/ltP; exact: (proj1 (C19_Bridge.arc_uv_spec net iso j (elimT ltP (ltn_ord j)))). Qed.
Lemma v_lt (j : 'I_r) : (C19_Bridge.arc_v net iso j < k)%nat.
Proof. apply/ltP; exact: (proj1 (proj2 (C19_Bridge.arc_uv_spec net iso j (elimT ltP (ltn_ord j))))). Qed.
Lemma rep_lt (c : 'I_l) : (C19_Bridge.rep L c < k)%nat.
Proof. apply/ltP; exact: (proj1 (@C19_Bridge.rep_spec arcs k OK c (elimT ltP (ltn_ord c)))). Qed.

Definition uf (j : 'I_r) : 'I_k := Ordinal (u_lt j).
Definition vf (j : 'I_r) : 'I_k := Ordinal (v_lt j).
Definition repf (c : 'I_l) : 'I_k := Ordinal (rep_lt c).
Definition clsf (c : 'I_l) (i : 'I_k) : bool := C19_Bridge.cls L c i.
Definition Ym : 'M[rat]_(m, k) := \matrix_(i, c) zr (List.nth i (List.nth c cs nil) 0%Z).

Lemma clsf_arc c j : clsf c (uf j) = clsf c (vf j).
Proof.
rewrite /clsf /=. apply: (@C19_Bridge.cls_arc arcs k OK); first by apply/ltP.
by apply C19_Bridge.arc_uv_spec; apply/ltP.
Qed.

Lemma clsf_rep c c' : clsf c (repf c') = (c == c').
Proof.
rewrite /clsf /= (@C19_Bridge.cls_rep arcs k OK); try by apply/ltP.
exact: eqb_ord.
Qed.

Lemma S_entry (i : 'I_m) (j : 'I_r) : toM m r S i j = Ym i (vf j) - Ym i (uf j).
Proof.
rewrite !mxE getz_list -zrB /=; congr (zr _).
by apply: C19_Bridge.S_entry_complexes; apply/ltP.
Qed.

(** rank of the stoichiometric matrix + number of linkage classes <= number of complexes *)
Theorem rank_plus_classes : (\rank (toM m r S) + l <= k)%nat.
Proof. exact: (rank_complex_bound clsf_arc clsf_rep S_entry). Qed.
End Net.

(** the same with the standard library's order and addition *)
Theorem rank_bound_le net iso r0 :
  let m := length (C17_Model.species_order net iso) in
  let n := length (C17_Model.reaction_order net) in
  let s := C19_Model.compute_summary net iso r0 in
  Peano.le (Nat.add (\rank (toM m n (C17_Model.build_S net iso))) (C19_Model.n_linkage s)) (C19_Model.n_complexes s).
Proof.
move=> m n s; rewrite /s C19_Linkage.compute_summary_eq /=.
by apply/leP; rewrite plusE; exact: rank_plus_classes.
Qed.

(** the deficiency with the exact rank over the rationals, justified by a checked certificate *)
Theorem deficiency_exact net iso (rc : C17_Model.rcert) :
  let m := length (C17_Model.species_order net iso) in
  let n := length (C17_Model.reaction_order net) in
  let S := C17_Model.build_S net iso in
  C17_Model.rank_checked m n S rc = true ->
  let s := C19_Model.compute_summary net iso (C17_Model.rc_r rc) in
  C19_Model.stoich_rank s = \rank (toM m n S) /\
  C19_Model.deficiency s =
    (Z.of_nat (C19_Model.n_complexes s) - Z.of_nat (C19_Model.n_linkage s) - Z.of_nat (\rank (toM m n S)))%Z.
Proof.
move=> m n S /C17_Rank.rank_checked_sound E s.
have F := C19_Proof.deficiency_formula net iso (C17_Model.rc_r rc).
have R : C19_Model.stoich_rank s = C17_Model.rc_r rc by rewrite /s C19_Linkage.compute_summary_eq.
by split; [rewrite R E | rewrite F R E].
Qed.

(** deficiency >= 0 for every network (CRNT: rank S <= n - l) *)
Theorem deficiency_nonneg net iso (rc : C17_Model.rcert) :
  let m := length (C17_Model.species_order net iso) in
  let n := length (C17_Model.reaction_order net) in
  C17_Model.rank_checked m n (C17_Model.build_S net iso) rc = true ->
  (0 <= C19_Model.deficiency (C19_Model.compute_summary net iso (C17_Model.rc_r rc)))%Z.
Proof.
move=> m n /C17_Rank.rank_checked_sound E.
have B := rank_plus_classes net iso. rewrite E in B.
rewrite C19_Linkage.compute_summary_eq /= /C19_Model.deficiency_of.
lia.
Qed.

Print Assumptions deficiency_nonneg.

(* ------------------------------------------------------------------ sum of the linkage-class deficiencies *)

Lemma sum_nth T (g : T -> nat) (s : seq T) (d : T) :
  (\sum_(0 <= c < length s) g (List.nth c s d))%nat = List.list_sum (List.map g s).
Proof.
elim: s => [|a s IH]; first by rewrite big_geq.
by rewrite /= big_nat_recl //= IH plusE.
Qed.

Section Sum.
Variables (net : seq C17_Model.rxn) (iso : seq C17_Model.str).
Let cs := fst (C19_Model.complex_graph net iso).
Let arcs := snd (C19_Model.complex_graph net iso).
Let L := C19_Model.linkage_classes arcs (length cs).
Let l := length L.
Let m := length (C17_Model.species_order net iso).
Let r := length (C17_Model.reaction_order net).
Let S := C17_Model.build_S net iso.
Let Dl (c : nat) := C19_Bridge.cdiffs net iso c.

Definition dfun (c : 'I_l) : nat := length (Dl c).
Definition Dm (c : 'I_l) : 'M[rat]_(dfun c, m) := toM (dfun c) m (Dl c).

Lemma cols_spec (j : 'I_r) :
  (forall i, toM m r S i j = 0) \/ exists c : 'I_l, exists t : 'I_(dfun c), forall i, toM m r S i j = Dm c t i.
Proof.
have jr : (j < length (C17_Model.reaction_order net))%coq_nat by apply/ltP.
case: (C19_Bridge.column_in_class_diffs net iso j jr) => [z | [c [t [/ltP Hc [/ltP Ht e]]]]].
- by left => i; rewrite mxE getz_list z //; apply/ltP.
- right; exists (Ordinal Hc), (Ordinal Ht) => i; rewrite !mxE !getz_list /=.
  by rewrite e //; apply/ltP.
Qed.

(** exact rank of S <= sum over the linkage classes of the exact ranks of their difference vectors *)
Theorem rank_le_class_ranks : (\rank (toM m r S) <= \sum_(c < l) \rank (Dm c))%nat.
Proof. exact: (rank_blocks cols_spec). Qed.

Theorem linkage_sum (rc : C17_Model.rcert) (ccs : seq C17_Model.rcert) :
  C19_Model.certs_ok net iso rc ccs = true ->
  (C19_Model.zsum (C19_Model.linkage_deficiencies L (List.map C17_Model.rc_r ccs))
   <= C19_Model.deficiency (C19_Model.compute_summary net iso (C17_Model.rc_r rc)))%Z.
Proof.
move=> /C19_Bridge.certs_ok_spec [] /C17_Rank.rank_checked_sound ES [] El Ec.
have B := rank_le_class_ranks; rewrite ES in B.
have E : (\sum_(c < l) \rank (Dm c))%nat = List.list_sum (List.map C17_Model.rc_r ccs).
  rewrite -(sum_nth _ _ C19_Bridge.dummy_cert) El -/L -/l big_mkord.
  apply: eq_bigr => c _; apply: C17_Rank.rank_checked_sound.
  by apply: Ec; apply/ltP.
rewrite E in B.
rewrite C19_Bridge.zsum_linkage_deficiencies; last by rewrite List.map_length.
rewrite C19_Bridge.concat_classes_length C19_Linkage.compute_summary_eq /= /C19_Model.deficiency_of.
rewrite -/cs -/arcs -/L.
lia.
Qed.
End Sum.
Print Assumptions linkage_sum.

(* non-vacuity: A + B <-> C, C -> 2A: S has rank 2 (certificate accepted), 3 complexes, 1 class, deficiency 0 *)
Definition ex_rc : C17_Model.rcert :=
  C17_Model.RCert 2 [:: [:: -1; 2]; [:: -1; 0]; [:: 1; -1]]%Z [:: [:: 1; -1; 0]; [:: 0; 0; 1]]%Z
                    [:: [:: 0; -2; 0]; [:: 1; -1; 0]]%Z [:: [:: 1; 0]; [:: 0; 0]; [:: 0; 1]]%Z 2%Z.
Example ex_deficiency :
  C17_Model.rank_checked 3 3 (C17_Model.build_S C19_Complexes.ex_net nil) ex_rc = true /\
  C19_Model.deficiency (C19_Model.compute_summary C19_Complexes.ex_net nil 2) = 0%Z.
Proof. by split; vm_compute. Qed.

(* non-vacuity for linkage_sum: the single class of the example has difference vectors of rank 2, class deficiency 3-1-2 = 0 *)
Definition ex_cc : C17_Model.rcert :=
  C17_Model.RCert 2 [:: [:: 1; 0]; [:: -1; 0]; [:: 0; 1]]%Z [:: [:: -1; -1; 1]; [:: 2; 0; -1]]%Z
                    [:: [:: 1; 0; 0]; [:: 0; 0; 1]]%Z [:: [:: 0; 1]; [:: -2; -1]; [:: 0; 0]]%Z 2%Z.
Example ex_linkage_sum :
  C19_Model.certs_ok C19_Complexes.ex_net nil ex_rc [:: ex_cc] = true /\
  C19_Model.linkage_deficiencies (C19_Model.linkage_classes C19_Complexes.ex_arcs 3) [:: 2%nat] = [:: 0%Z].
Proof. by split; vm_compute. Qed.

(** each class deficiency, with the exact rank of the class's difference vectors *)
Lemma linkage_deficiency_nth L ranks c : length ranks = length L -> (c < length L)%coq_nat ->
  List.nth c (C19_Model.linkage_deficiencies L ranks) 0%Z
  = (Z.of_nat (length (List.nth c L nil)) - 1 - Z.of_nat (List.nth c ranks 0%nat))%Z.
Proof.
move=> E Hc; rewrite /C19_Model.linkage_deficiencies.
have Hl : (c < length (List.combine L ranks))%coq_nat by rewrite List.combine_length E Nat.min_id.
rewrite (List.nth_indep _ 0%Z ((fun p : seq N * nat => (Z.of_nat (length p.1) - 1 - Z.of_nat p.2)%Z) (nil, 0%nat))); last by rewrite List.map_length.
by rewrite List.map_nth List.combine_nth.
Qed.

Theorem class_deficiency_exact net iso (rc : C17_Model.rcert) (ccs : seq C17_Model.rcert) c :
  C19_Model.certs_ok net iso rc ccs = true ->
  let L := C19_Model.linkage_classes (snd (C19_Model.complex_graph net iso)) (length (fst (C19_Model.complex_graph net iso))) in
  let m := length (C17_Model.species_order net iso) in
  let D := C19_Bridge.cdiffs net iso c in
  (c < length L)%coq_nat ->
  List.nth c (C19_Model.linkage_deficiencies L (List.map C17_Model.rc_r ccs)) 0%Z
  = (Z.of_nat (length (List.nth c L nil)) - 1 - Z.of_nat (\rank (toM (length D) m D)))%Z.
Proof.
move=> /C19_Bridge.certs_ok_spec [] _ [] El Ec L m D Hc.
rewrite linkage_deficiency_nth ?List.map_length //.
rewrite (List.nth_indep _ 0%nat (C17_Model.rc_r C19_Bridge.dummy_cert)); last by rewrite List.map_length El.
by rewrite List.map_nth (C17_Rank.rank_checked_sound (Ec c Hc)).
Qed.
