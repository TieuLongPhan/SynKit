(** C10 — proofs: renumbering the atom maps of a molecule record (same atoms in the same order, same bonds, map number k
    replaced by sg k) renumbers the graph rsmi_to_graph builds: the pair is [renamed] in the sense of proof/C10_Renumber.v.  Hence
    the rule of a reaction whose atom maps were renumbered IN THE STRING is the renumbered rule (C10_rule_renumbering_records). *)
From Coq Require Import List NArith ZArith Bool Lia.
From SK Require Import lib.LGraph lib.StrJoin model.C10_Model model.C10_Rxn proof.C10_Views proof.C10_Build proof.C10_Copy
  proof.C10_MolGraph proof.C10_Light proof.C10_MolOk proof.C10_Smart proof.C10_G2MSpec proof.C10_MolMapped proof.C10_Relabel proof.C10_Renumber.
Import ListNotations.
Local Open Scope Z_scope.


Lemma index_of_map_inj (s : N -> N) u l : forall k, (forall x, In x l -> s x = s u -> x = u) ->
  index_of (s u) (map s l) k = index_of u l k.
Proof.
  induction l as [|w t IH]; intros k H; [reflexivity|]. simpl. destruct (N.eqb_spec w u) as [->|Hne].
  - rewrite N.eqb_refl. reflexivity.
  - destruct (N.eqb_spec (s w) (s u)) as [E|_]; [exfalso; apply Hne, H; [left; reflexivity|exact E]|].
    apply IH. intros x Hx. apply H. right. exact Hx.
Qed.
Lemma NoDup_map_inj_back {A B} (f : A -> B) l : NoDup (map f l) -> forall a b, In a l -> In b l -> f a = f b -> a = b.
Proof.
  induction l as [|x r IH]; intros Hnd a b Ha Hb E; [destruct Ha|]. simpl in Hnd. inversion Hnd as [|? ? Hnot Hnd']; subst.
  destruct Ha as [<-|Ha]; destruct Hb as [<-|Hb]; try reflexivity.
  - exfalso. apply Hnot. rewrite E. apply in_map, Hb.
  - exfalso. apply Hnot. rewrite <- E. apply in_map, Ha.
  - apply IH; assumption.
Qed.

Lemma pos_mapped_all l : forallb pos_mapped l = true -> forallb mapped l = true.
Proof.
  rewrite !forallb_forall. intros H a Ha. specialize (H a Ha). unfold pos_mapped in H. unfold mapped. apply Z.ltb_lt in H.
  apply negb_true_iff, Z.eqb_neq. lia.
Qed.

Section Rec.
Variable sg : Z -> Z.
Variable m : rmol.
Hypothesis Hok : rdmol_ok m = true.
Hypothesis Hpos : forallb pos_mapped (fst m) = true.
Hypothesis Hok' : rdmol_ok (remap sg m) = true.
Hypothesis Hpos' : forallb pos_mapped (fst (remap sg m)) = true.
Let atoms := fst m.
Let m' := remap sg m.
Let Hfull := pos_mapped_all _ Hpos.
Let Hfull' := pos_mapped_all _ Hpos'.
Let G := mol_to_graph m true true.
Let G' := mol_to_graph m' true true.
Let ids := map fst (numT atoms).
Let ids' := map fst (numT (fst m')).
Let s := sN sg.

Lemma ids_eq : ids = map (fun a => Z.to_N (r_map a)) atoms.
Proof. unfold ids. rewrite (numT_full atoms Hfull), map_map. reflexivity. Qed.
Lemma ids'_eq : ids' = map s ids.
Proof.
  unfold ids', m'. rewrite (numT_full _ Hfull'), map_map. simpl. rewrite ids_eq. unfold remap. simpl fst. rewrite !map_map.
  apply map_ext_in. intros a Ha. unfold s, sN. simpl. pose proof Hpos as HP. rewrite forallb_forall in HP. specialize (HP a Ha). unfold pos_mapped in HP.
  apply Z.ltb_lt in HP. rewrite Z2N.id by lia. reflexivity.
Qed.
Lemma nd' : NoDup ids'.
Proof. apply (rdmol_ok_parts m' Hok'). Qed.
Lemma s_inj a b : In a ids -> In b ids -> s a = s b -> a = b.
Proof. apply NoDup_map_inj_back. rewrite <- ids'_eq. exact nd'. Qed.

Lemma node_ids_G : node_ids G = ids.
Proof. unfold node_ids, G. rewrite (G_gnodes_t m Hok Hfull). reflexivity. Qed.
Lemma node_ids_G' : node_ids G' = ids'.
Proof. unfold node_ids, G'. rewrite (G_gnodes_t m' Hok' Hfull'). reflexivity. Qed.

Theorem remap_renamed : renamed s G G'.
Proof.
  split.
  - intros a b Ha Hb. apply has_node_in in Ha, Hb. rewrite node_ids_G in Ha, Hb. apply s_inj; assumption.
  - intros k. rewrite has_node_in, node_ids_G', ids'_eq, in_map_iff. split.
    + intros (n & <- & Hn). exists n. split; [apply has_node_in; rewrite node_ids_G; exact Hn|reflexivity].
    + intros (n & Hn & ->). exists n. split; [reflexivity|]. apply has_node_in in Hn. rewrite node_ids_G in Hn. exact Hn.
  - intros n a La. unfold label, G in La. rewrite (G_gnodes_t m Hok Hfull), (numT_full (fst m) Hfull) in La. apply assoc_in in La.
    apply in_map_iff in La. destruct La as (x & E & Hx). injection E as <- <-.
    exists (atom_att (remap_atom sg x)). split.
    + unfold label, G'. rewrite (G_gnodes_t m' Hok' Hfull'). apply assoc_nodup_in; [exact nd'|].
      unfold m'. rewrite (numT_full _ Hfull'). apply in_map_iff. exists (remap_atom sg x). split.
      * f_equal. unfold s, sN. simpl. pose proof Hpos as HP. rewrite forallb_forall in HP. specialize (HP x Hx). unfold pos_mapped in HP.
        apply Z.ltb_lt in HP. rewrite Z2N.id by lia. reflexivity.
      * unfold remap. simpl. apply in_map, Hx.
    + repeat split.
  - intros u v Hu Hv. apply has_node_in in Hu, Hv. rewrite node_ids_G in Hu, Hv.
    unfold G, G'. rewrite (G_adj_t m Hok Hfull u v), (G_adj_t m' Hok' Hfull' (s u) (s v)). unfold mdT.
    change (map fst (numT (fst m))) with ids. change (map fst (numT (fst m'))) with ids'. rewrite ids'_eq.
    rewrite (index_of_map_inj s u ids 0%N) by (intros x Hx E; apply s_inj; assumption).
    rewrite (index_of_map_inj s v ids 0%N) by (intros x Hx E; apply s_inj; assumption).
    reflexivity.
Qed.
End Rec.

(** ** the rule of a reaction whose atom maps were renumbered in the string *)
Theorem rule_renumbering_records (sg : Z -> Z) (mr mp : rmol) (eo eo' : list (N * N)) (eh : bool) :
  rdmol_ok mr = true -> rdmol_ok mp = true -> forallb pos_mapped (fst mr) = true -> forallb pos_mapped (fst mp) = true ->
  rdmol_ok (remap sg mr) = true -> rdmol_ok (remap sg mp) = true ->
  forallb pos_mapped (fst (remap sg mr)) = true -> forallb pos_mapped (fst (remap sg mp)) = true ->
  let r := mol_to_graph mr true true in let p := mol_to_graph mp true true in
  let r' := mol_to_graph (remap sg mr) true true in let p' := mol_to_graph (remap sg mp) true true in
  balanced r p = true -> eo_covers r p eo = true -> balanced r' p' = true -> eo_covers r' p' eo' = true ->
  let A := gml_to_its (smart_to_gml r p eo true false eh) in
  let A' := gml_to_its (smart_to_gml r' p' eo' true false eh) in
  let s := sN sg in
  (forall k, has_node A' k = true <-> exists n, has_node A n = true /\ k = s n) /\
  (forall n e q q', label A n = Some (gml_node n e q q') -> label A' (s n) = Some (gml_node (s n) e q q')) /\
  (forall u v, has_node A u = true -> has_node A v = true -> adj A' (s u) (s v) = adj A u v).
Proof.
  intros Hr Hp Pr Pp Hr' Hp' Pr' Pp' r p r' p' Hb He Hb' He'.
  apply (rule_renumbering (sN sg) r p r' p' eo eo' eh); try assumption.
  - apply rsmi_graph_mol_ok, Hr.
  - apply rsmi_graph_mol_ok, Hp.
  - apply rsmi_graph_mol_ok, Hr'.
  - apply rsmi_graph_mol_ok, Hp'.
  - apply (remap_renamed sg mr Hr Pr Hr' Pr').
  - apply (remap_renamed sg mp Hp Pp Hp' Pp').
Qed.

(** non-vacuity: [CH3:5][O-:2] with every map number k replaced by k + 10 *)
Example remap_renamed_ex :
  rdmol_ok ex_mapped = true /\ forallb pos_mapped (fst ex_mapped) = true /\
  rdmol_ok (remap (fun k => k + 10) ex_mapped) = true /\ forallb pos_mapped (fst (remap (fun k => k + 10) ex_mapped)) = true /\
  node_ids (mol_to_graph ex_mapped true true) = [5%N; 2%N] /\
  node_ids (mol_to_graph (remap (fun k => k + 10) ex_mapped) true true) = [15%N; 12%N].
Proof. vm_compute. repeat split. Qed.
