(** C06 — non-interference over whole histories, edge-attribute names: two runs of the same script from
    states that agree on everything except the value of one EDGE-attribute name [k] answer every search that
    does not select [k] (in edge_attrs) identically. *)
From Coq Require Import List NArith Bool Arith Lia.
From SK Require Import lib.LGraph model.C06_Model model.C06_Attrs model.C06_Hist lib.C06_HistSpec proof.C06_Hist proof.C06_HistFrame.
Import ListNotations.

Definition edge_agree (k : N) (e1 e2 : N * N * rattrs) : Prop :=
  fst (fst e1) = fst (fst e2) /\ snd (fst e1) = snd (fst e2) /\ dict_agree k (snd e1) (snd e2).

(** same nodes; edges with the same end points in the same order, well-formed dictionaries that agree off [k] *)
Definition agree_off_edge (k : N) (g1 g2 : rgraph) : Prop :=
  gnodes g1 = gnodes g2 /\ Forall2 (edge_agree k) (gedges g1) (gedges g2).

Definition step_off_edge (k : N) (s : hstep) : Prop :=
  match s with
  | HEdit _ (EAddEdge _ _ d) => dict_ok d
  | HEdit _ _ => True
  | HSearch _ _ ea _ => ~ In k ea
  | HMutateResult => True
  end.

Lemma edges_agree_map k a b (f : rattrs -> rattrs) es1 es2 :
  (forall d1 d2, dict_agree k d1 d2 -> dict_agree k (f d1) (f d2)) -> Forall2 (edge_agree k) es1 es2 ->
  Forall2 (edge_agree k) (map (fun e => let '(x, y, d) := e in if joins a b x y then (x, y, f d) else e) es1)
                         (map (fun e => let '(x, y, d) := e in if joins a b x y then (x, y, f d) else e) es2).
Proof.
  intros Hf. apply Forall2_map_same. intros [[x1 y1] d1] [[x2 y2] d2] (E1 & E2 & D). simpl in E1, E2, D. subst x2 y2.
  destruct (joins a b x1 y1); (split; [|split]); simpl; auto.
Qed.

Lemma edges_agree_find k a b es1 es2 : Forall2 (edge_agree k) es1 es2 ->
  match find_edge a b es1, find_edge a b es2 with Some _, Some _ | None, None => True | _, _ => False end.
Proof.
  intros Ha. induction Ha as [|[[x1 y1] d1] [[x2 y2] d2] l1 l2 (E1 & E2 & _) _ IH]; simpl; [exact Logic.I|].
  simpl in E1, E2. subst x2 y2.
  destruct ((N.eqb x1 a && N.eqb y1 b) || (N.eqb x1 b && N.eqb y1 a)); [exact Logic.I|exact IH].
Qed.

Lemma agree_off_edge_edit k side e g1 g2 : step_off_edge k (HEdit side e) -> agree_off_edge k g1 g2 ->
  agree_off_edge k (apply_edit e g1) (apply_edit e g2).
Proof.
  intros Hs [En Ee]. unfold agree_off_edge.
  assert (Hfil : forall q : N -> N -> bool,
            Forall2 (edge_agree k) (filter (fun e => let '(x, y, _) := e in q x y) (gedges g1))
                                   (filter (fun e => let '(x, y, _) := e in q x y) (gedges g2))).
  { intros q. apply Forall2_filter_same; [|exact Ee].
    intros [[x1 y1] d1] [[x2 y2] d2] (E1 & E2 & _). simpl in E1, E2. subst x2 y2. reflexivity. }
  destruct e as [u k0 v n|u k0|a b k0 v|a b d|a b|u l|u]; cbn [apply_edit map_node map_edge gnodes gedges].
  - rewrite En. split; [reflexivity|exact Ee].
  - rewrite En. split; [reflexivity|exact Ee].
  - split; [exact En|]. apply edges_agree_map; [|exact Ee]. intros d1 d2. apply dict_agree_set.
  - pose proof (edges_agree_find k a b _ _ Ee) as Hf.
    destruct (find_edge a b (gedges g1)), (find_edge a b (gedges g2)); try destruct Hf; cbn [map_edge gnodes gedges].
    + split; [exact En|]. apply edges_agree_map; [|exact Ee]. intros d1 d2. apply dict_agree_update.
    + rewrite En. split; [reflexivity|]. apply Forall2_app; [exact Ee|]. constructor; [|constructor].
      split; [|split]; try reflexivity. apply dict_agree_refl. exact Hs.
  - split; [exact En|]. exact (Hfil (fun x y => negb (joins a b x y))).
  - unfold node_ids. rewrite En. destruct (LGraph.mem u (map fst (gnodes g2))); cbn [map_node gnodes gedges]; rewrite ?En.
    + split; [reflexivity|exact Ee].
    + split; [reflexivity|exact Ee].
  - rewrite En. split; [reflexivity|]. exact (Hfil (fun x y => negb (N.eqb x u) && negb (N.eqb y u))).
Qed.

Lemma project_agree_edge k swap na ea c g1 g2 : step_off_edge k (HSearch swap na ea c) -> agree_off_edge k g1 g2 ->
  project na ea g1 = project na ea g2.
Proof.
  intros Hn [En Ee]. unfold project. rewrite En. f_equal.
  induction Ee as [|[[x1 y1] d1] [[x2 y2] d2] l1 l2 (E1 & E2 & _ & _ & D) _ IH]; simpl; [reflexivity|].
  simpl in E1, E2, D. subst x2 y2. rewrite IH. do 2 f_equal. unfold proj_e.
  apply map_ext_in. intros k' Hin. apply D. intros ->. exact (Hn Hin).
Qed.

Theorem hist_noninterference_edge k : forall steps (H1 H2 P1 P2 : rgraph),
  agree_off_edge k H1 H2 -> agree_off_edge k P1 P2 -> Forall (step_off_edge k) steps ->
  run_hist H1 P1 steps = run_hist H2 P2 steps.
Proof. exact (related_runs (agree_off_edge k) (step_off_edge k) (agree_off_edge_edit k) (project_agree_edge k)). Qed.

Definition edges_ok (g : rgraph) : Prop := Forall (fun e : N * N * rattrs => dict_ok (snd e)) (gedges g).

Lemma agree_off_edge_refl k g : edges_ok g -> agree_off_edge k g g.
Proof.
  intros Hs. split; [reflexivity|].
  induction Hs as [|e l He _ IH]; constructor; [|exact IH]. split; [|split]; try reflexivity. apply dict_agree_refl. exact He.
Qed.

Lemma agree_off_edge_set k a b v g : edges_ok g -> agree_off_edge k (apply_edit (ESetEdgeAttr a b k v) g) g.
Proof.
  intros Hs. split; [reflexivity|]. cbn [apply_edit map_edge gedges].
  induction Hs as [|[[x y] d] l He _ IH]; simpl; constructor; [|exact IH]. simpl in He.
  destruct (joins a b x y); (split; [|split]); try reflexivity; [apply dict_agree_set_same|apply dict_agree_refl]; exact He.
Qed.

(** the instance: [g[a][b][k] = v] on a state with well-formed edge dictionaries is never seen by a script in
    which no search selects [k] among the edge attributes *)
Theorem hist_edge_edit_never_seen k a b v host_side (H P : rgraph) steps :
  edges_ok H -> edges_ok P -> Forall (step_off_edge k) steps ->
  run_hist H P (HEdit host_side (ESetEdgeAttr a b k v) :: steps) = run_hist H P steps.
Proof.
  intros SH SP.
  apply (edit_never_seen (agree_off_edge k) (step_off_edge k) (agree_off_edge_edit k) (project_agree_edge k));
    auto using agree_off_edge_refl, agree_off_edge_set.
Qed.

(** non-vacuity: the script of proof/C06_HistFrame.v preceded by an edit of the unselected edge name 8 *)
Local Open Scope N_scope.
Example ex_hist_edge_never_seen :
  run_hist Hh Ph (HEdit true (ESetEdgeAttr 0 1 8 5) :: script7) = run_hist Hh Ph script7 /\
  run_hist Hh Ph (HEdit true (ESetEdgeAttr 0 1 3 5) :: script7) <> run_hist Hh Ph script7.
Proof.
  split.
  - apply (hist_edge_edit_never_seen 8 0 1 5 true Hh Ph script7).
    + unfold edges_ok, dict_ok. repeat constructor; simpl; intuition.
    + unfold edges_ok, dict_ok. repeat constructor; simpl; intuition.
    + unfold script7, dict_ok. repeat constructor; simpl; intuition; discriminate.
  - vm_compute. discriminate.
Qed.
