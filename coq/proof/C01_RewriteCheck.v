(** C01 — the executable test [rewrittenb] (model/C01_Rewrite.v) is sound for [rewritten]: whenever the correspondence
    evaluates it to true on what RDKit reads from a SMILES and from its rewriting, the hypothesis of theorems 37 / 41 holds
    for that pair of readings *)
From Coq Require Import List NArith ZArith Bool Arith.
From SK Require Import lib.LGraph model.C01_Model model.C01_String model.C01_Rewrite.
Import ListNotations.

Lemma list_eqb_N_eq (l1 l2 : list N) : list_eqb N.eqb l1 l2 = true -> l1 = l2.
Proof.
  revert l2. induction l1 as [|x r IH]; intros [|y r2]; cbn; try discriminate; [reflexivity|].
  intros E. apply andb_true_iff in E. destruct E as [E1 E2]. apply N.eqb_eq in E1. subst. f_equal. apply IH. exact E2.
Qed.

Lemma ratom_eqb_eq a b : ratom_eqb a b = true -> a = b.
Proof.
  destruct a, b. unfold ratom_eqb. cbn. intros E.
  repeat (apply andb_true_iff in E; destruct E as [E ?]).
  apply N.eqb_eq in E. apply eqb_prop in H3. apply Z.eqb_eq in H2, H1. apply N.eqb_eq in H0. apply list_eqb_N_eq in H. subst. reflexivity.
Qed.

Lemma bond_in_spec b bs : bond_in b bs = true -> In b bs.
Proof.
  unfold bond_in. rewrite existsb_exists. intros (c & I & E). unfold bond_eqb in E.
  apply andb_true_iff in E. destruct E as [E E3]. apply andb_true_iff in E. destruct E as [E1 E2].
  apply Nat.eqb_eq in E1, E2. apply Z.eqb_eq in E3. destruct b as [[b1 b2] b3], c as [[c1 c2] c3]. cbn in *. subst. exact I.
Qed.

Lemma nodupb_spec l : nodupb l = true -> NoDup l.
Proof.
  induction l as [|x r IH]; cbn; intros E; [constructor|]. apply andb_true_iff in E. destruct E as [E1 E2].
  constructor; [|apply IH; exact E2]. intros I. apply negb_true_iff in E1.
  assert (existsb (Nat.eqb x) r = true) as K by (apply existsb_exists; exists x; split; [exact I|apply Nat.eqb_refl]). congruence.
Qed.

Theorem rewrittenb_sound sl m m' : rewrittenb sl m m' = true -> rewritten (s_of sl) m m'.
Proof.
  unfold rewrittenb. intros E.
  repeat (apply andb_true_iff in E; destruct E as [E ?]).
  rename H into Bd, H0 into Bb, H1 into Bf, H2 into At, H3 into Nd, H4 into Ls. apply Nat.eqb_eq in E, Ls. apply nodupb_spec in Nd.
  split; [exact E|]. split; [|split; [|split; [|split]]].
  - intros i j Hi Hj Es. unfold s_of in Es. rewrite <- Ls in Hi, Hj.
    rewrite (nth_indep sl i 0%nat Hi), (nth_indep sl j 0%nat Hj) in Es. apply (proj1 (NoDup_nth sl 0%nat) Nd i j Hi Hj Es).
  - intros i a Ea. rewrite forallb_forall in At.
    assert (i < length (rm_atoms m))%nat as Hi by (apply nth_error_Some; congruence).
    specialize (At i (proj2 (in_seq _ _ _) (conj (Nat.le_0_l i) Hi))). rewrite Ea in At.
    destruct (nth_error (rm_atoms m') (s_of sl i)) as [b|]; [|discriminate]. apply ratom_eqb_eq in At. subst. reflexivity.
  - intros i j o I. rewrite forallb_forall in Bf. specialize (Bf _ I). cbn in Bf. apply orb_true_iff in Bf.
    destruct Bf as [K|K]; apply bond_in_spec in K; auto.
  - intros i' j' o I. rewrite forallb_forall in Bb. specialize (Bb _ I). cbn in Bb. apply existsb_exists in Bb.
    destruct Bb as ([[i j] o2] & Ib & K). apply andb_true_iff in K. destruct K as [Eo K]. apply Z.eqb_eq in Eo. subst o2.
    apply orb_true_iff in K. destruct K as [K|K]; apply andb_true_iff in K; destruct K as [K1 K2]; apply Nat.eqb_eq in K1, K2.
    + exists i, j. auto.
    + exists j, i. auto.
  - intros i j o I. rewrite forallb_forall in Bd. specialize (Bd _ I). cbn in Bd. apply andb_true_iff in Bd. destruct Bd as [B1 B2].
    apply Nat.ltb_lt in B1, B2. auto.
Qed.

(** [rewritten] reads the index map only on the atom indices of the molecule *)
Lemma rewritten_ext s s' m m' : (forall i, (i < length (rm_atoms m))%nat -> s' i = s i) -> rewritten s m m' -> rewritten s' m m'.
Proof.
  intros E (L & Inj & At & Bf & Bb & Bd). split; [exact L|]. split; [|split; [|split; [|split; [|exact Bd]]]].
  - intros i j Hi Hj. rewrite (E i Hi), (E j Hj). apply Inj; assumption.
  - intros i a Ea. rewrite E; [apply At; exact Ea|]. apply nth_error_Some. congruence.
  - intros i j o I. destruct (Bd i j o I) as [Hi Hj]. rewrite (E i Hi), (E j Hj). apply Bf. exact I.
  - intros i' j' o I. destruct (Bb i' j' o I) as (i & j & Ib & -> & ->). exists i, j. split; [exact Ib|].
    destruct Ib as [Ib|Ib]; destruct (Bd _ _ _ Ib) as [H1 H2]; rewrite (E i), (E j) by assumption; auto.
Qed.

(** non-vacuity: the example of C01_rewritten_nonvacuous passes the test *)
Definition ex_mp_c : rmol :=
  RM [RA 70%N false 3 0 1%N [82%N]; RA 82%N false 1 0 3%N [70%N]; RA 17013%N false 0 (-1) 2%N []] [(0%nat, 1%nat, 2%Z)].
Definition ex_mp_c_rw : rmol :=
  RM [RA 17013%N false 0 (-1) 2%N []; RA 82%N false 1 0 3%N [70%N]; RA 70%N false 3 0 1%N [82%N]] [(1%nat, 2%nat, 2%Z)].
Example C01_rewrittenb_nonvacuous :
  rewrittenb [2; 1; 0]%nat ex_mp_c ex_mp_c_rw = true /\ rewrittenb [0; 1; 2]%nat ex_mp_c ex_mp_c_rw = false /\
  rewritten (s_of [2; 1; 0]%nat) ex_mp_c ex_mp_c_rw.
Proof. split; [reflexivity|]. split; [reflexivity|]. apply rewrittenb_sound. reflexivity. Qed.
