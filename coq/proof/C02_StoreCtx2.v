(** C02 — ITS graphs of any label shape, further clauses: extract_k commutes with renumbering for EVERY option value
    (n_knn = -1 through the skeleton); the flattened radius-k context of a store=True ITS is the radius-k context of its
    store=False twin; which atoms the centre has ([rcS_nodes]); clause 1 of the property ([rcS_edges_std], [rcS_edges_ia]);
    renumbering at the level of the reaction; get_rc_x under maps of label values; the extension path lies in the
    maximum-radius context. *)
From Coq Require Import List NArith ZArith Bool Lia.
From SK Require Import lib.LGraph lib.C01_GraphLemmas model.C01_Model model.C01_Opts model.C02_Model proof.C02_Proof
                       proof.C02_Opts proof.C02_LreEquiv proof.C02_Store proof.C02_StoreCtx proof.C02_StoreEquiv
                       proof.C02_StoreNest proof.C01_OptsProof model.C02_Store proof.C02_Wfb proof.C02_Ball.
Import ListNotations.
Local Open Scope Z_scope.

(** * renumbering, every option value *)
Lemma skel_relabel {A} (f : N -> N) (g : lgraph A xedge) : skel (relabel f g) = relabel f (skel g).
Proof. symmetry. apply relabel_gmap. Qed.

Theorem ctxS_z_equivariant (f : N -> N) (Hinj : forall a b, f a = f b -> a = b) (g : sits) (k : Z) : wf g ->
  extract_k_S_z (relabel f g) k = relabel f (extract_k_S_z g k).
Proof.
  intros W. unfold extract_k_S_z. destruct (k =? 0); [apply (rcS_equivariant f Hinj); exact W|].
  rewrite (rcS_equivariant f Hinj K_default false false g W), (node_ids_relabel f). destruct (k =? -1).
  - rewrite skel_relabel, (lre_relabel f Hinj), map_length. apply (ball_sub_equivariant f Hinj).
  - apply (ball_sub_equivariant f Hinj).
Qed.

(** * store=True and store=False give the same contexts *)
Theorem ctxS_twin (g : itsS) (k : nat) : el_same g -> (1 <= k)%nat ->
  gmapn flat (extract_k_S (emb_S g) k) = emb (extract_k (gmap twin (fun e : iedge => e) g) k).
Proof.
  intros Hs Hk. destruct k as [|j]; [lia|]. set (T := gmap twin (fun e : iedge => e) g).
  change (extract_k_S (emb_S g) (S j)) with (ball_sub (emb_S g) (node_ids (get_rc_S K_default false false (emb_S g))) (S j)).
  rewrite ball_sub_gmapn, (flat_emb_S g Hs). fold T.
  assert (node_ids (get_rc_S K_default false false (emb_S g)) = node_ids (get_rc T)) as ->.
  { rewrite <- (node_ids_gmapn flat), (rcS_twin K_default false false g Hs). fold T. apply node_ids_rc_emb. }
  rewrite extract_k_succ. unfold emb. symmetry. apply ball_sub_gmap.
Qed.

(** end to end: the radius-k context of construct(G, H, store=True), flattened, is the radius-k context of construct(G, H, store=False) *)
Theorem ctxS_construct o G H (k : nat) : el_same (its_construct_S o G H) -> (1 <= k)%nat ->
  gmapn flat (extract_k_S (emb_S (its_construct_S o G H)) k) = emb (extract_k (its_construct_o o G H) k).
Proof. intros Hs Hk. rewrite (ctxS_twin _ k Hs Hk), twin_construct. reflexivity. Qed.

Example C02_ctxS_twin_nonvacuous :
  el_same ctxS_ex /\ gmapn flat (extract_k_S (emb_S ctxS_ex) 1) = emb (extract_k (gmap twin (fun e : iedge => e) ctxS_ex) 1) /\
  length (gnodes (extract_k (gmap twin (fun e : iedge => e) ctxS_ex) 1)) = 5%nat /\
  extract_k_S_z (relabel (N.add 10) (emb_S ctxS_ex)) (-1) = relabel (N.add 10) (extract_k_S_z (emb_S ctxS_ex) (-1)).
Proof.
  assert (el_same ctxS_ex) as Hs
    by (unfold el_same; apply (nodes_all ctxS_ex (fun p => N.eqb (fst (s_el (snd p))) (snd (s_el (snd p)))) (fun _ a => fst (s_el a) = snd (s_el a)));
        [intros n a; apply N.eqb_eq|reflexivity]).
  split; [exact Hs|]. split; [apply ctxS_twin; [exact Hs|lia]|]. split; [reflexivity|].
  apply ctxS_z_equivariant; [intros a b; apply N.add_cancel_l|exact (proj1 C02_ctxS_nonvacuous)].
Qed.

(** * theorem 8 (which atoms, with which labels) for every label shape *)
(** [inc_end_g] / [hh_end_g] of proof/C02_Generic.v at [snode] *)
Definition inc_end_S (m : bool) (g : sits) (n : N) : Prop := exists v x, adj g n v = Some x /\ include_x m x = true.
Definition hh_end_S (g : sits) (n : N) : Prop := exists v x, adj g n v = Some x /\ is_hh_g ish_S g n v = true.

Theorem rcS_nodes K d m (g : sits) : wf g -> forall n b,
  label (get_rc_S K d m g) n = Some b <->
  exists a, label g n = Some a /\
    ((inc_end_S m g n /\ b = selS K a) \/
     (~ inc_end_S m g n /\ hh_end_S g n /\ b = selS_hh K a) \/
     (~ inc_end_S m g n /\ ~ hh_end_S g n /\ d = true /\ cc_S a = true /\ b = selS K a)).
Proof. exact (rcg_nodes (selS K) (selS_hh K) ish_S cc_S d m g). Qed.

Example C02_rcS_nodes_nonvacuous :
  wf (emb_S exS) /\ inc_end_S false (emb_S exS) 1%N /\ label (get_rc_S K_default false false (emb_S exS)) 1%N = option_map (selS K_default) (label (emb_S exS) 1%N) /\
  label (emb_S exS) 1%N <> None.
Proof.
  split; [exact (proj1 C02_store_nonvacuous)|]. split; [exists 2%N, (IE 4 2 2, None); split; reflexivity|]. split; [reflexivity|vm_compute; discriminate].
Qed.

(** * clause 1 of the property, verbatim, on graphs of any label shape: with standard_order = order difference a bond is in the
    centre iff its two orders differ or both atoms are hydrogens ("H" or ("H","H")); with the ignore_aromaticity rule: iff they
    differ by at least 1 *)
Definition std_consistent_S (g : sits) : Prop := forall u v x, In (u, v, x) (gedges g) -> e_std (fst x) = e_G (fst x) - e_H (fst x).
Definition ia_consistent_S (g : sits) : Prop :=
  forall u v x, In (u, v, x) (gedges g) -> e_std (fst x) = if Z.abs (e_G (fst x) - e_H (fst x)) <? 2 then 0 else e_G (fst x) - e_H (fst x).

(** the default centre when "changed" (standard_order != 0) is known to mean [P] on every bond *)
Lemma rcS_edges_when (g : sits) (P : xedge -> Prop) : wf g ->
  (forall u v x, In (u, v, x) (gedges g) -> (changed (fst x) = true <-> P x)) -> forall u v y,
  adj (get_rc_S K_default false false g) u v = Some y <->
  exists x, adj g u v = Some x /\ (P x \/ is_hh_g ish_S g u v = true) /\ y = out_edge x.
Proof.
  intros W HP u v y. rewrite (rcS_edges K_default false false g W).
  assert (forall x, adj g u v = Some x -> (include_x false x = true <-> P x)) as Eq.
  { intros x A. rewrite include_x_false. apply (wf_adj_iff W) in A. destruct A as [A|A]; exact (HP _ _ _ A). }
  split.
  - intros (x & A & [[H ->]|(_ & _ & C & _)]); [|discriminate]. exists x. rewrite <- (Eq x A). auto.
  - intros (x & A & H & ->). exists x. split; [exact A|]. left. rewrite (Eq x A). auto.
Qed.

Theorem rcS_edges_std (g : sits) : wf g -> std_consistent_S g -> forall u v y,
  adj (get_rc_S K_default false false g) u v = Some y <->
  exists x, adj g u v = Some x /\ (e_G (fst x) <> e_H (fst x) \/ is_hh_g ish_S g u v = true) /\ y = out_edge x.
Proof.
  intros W Hs. apply (rcS_edges_when g (fun x => e_G (fst x) <> e_H (fst x)) W).
  intros u v x I. unfold changed. rewrite negb_true_iff, Z.eqb_neq, (Hs u v x I). lia.
Qed.

Theorem rcS_edges_ia (g : sits) : wf g -> ia_consistent_S g -> forall u v y,
  adj (get_rc_S K_default false false g) u v = Some y <->
  exists x, adj g u v = Some x /\ (2 <= Z.abs (e_G (fst x) - e_H (fst x)) \/ is_hh_g ish_S g u v = true) /\ y = out_edge x.
Proof.
  intros W Hs. apply (rcS_edges_when g (fun x => 2 <= Z.abs (e_G (fst x) - e_H (fst x))) W).
  intros u v x I. unfold changed. rewrite negb_true_iff, Z.eqb_neq, (Hs u v x I).
  destruct (Z.ltb_spec (Z.abs (e_G (fst x) - e_H (fst x))) 2); lia.
Qed.

(** every ITS that ITSConstruction builds with store=True is consistent in the sense its options say *)
Lemma construct_S_consistent o G H :
  (o_ia o = false -> std_consistent_S (emb_S (its_construct_S o G H))) /\ (o_ia o = true -> ia_consistent_S (emb_S (its_construct_S o G H))).
Proof.
  split; intros Ho u v x I; unfold emb_S, gmap, its_construct_S, its_construct_gen in I; simpl in I;
    apply in_map_iff in I; destruct I as ([[a b] e] & E & I); inversion E; subst; simpl;
    apply in_app_iff in I; destruct I as [I|I]; apply in_map_iff in I; destruct I as ([[a' b'] z] & E' & _); inversion E'; subst;
    unfold mk_iedge_o, std_of; simpl; rewrite Ho; simpl; reflexivity.
Qed.

Example C02_rcS_edges_std_nonvacuous :
  wf (emb_S ctxS_ex) /\ std_consistent_S (emb_S ctxS_ex) /\
  adj (get_rc_S K_default false false (emb_S ctxS_ex)) 1%N 2%N = Some (IE 2 2 0, Some false) /\ is_hh_g ish_S (emb_S ctxS_ex) 1%N 2%N = true /\
  adj (get_rc_S K_default false false (emb_S ctxS_ex)) 3%N 4%N = Some (IE 4 2 2, Some false).
Proof.
  split; [exact (proj1 C02_ctxS_nonvacuous)|]. split; [|vm_compute; repeat split; reflexivity].
  unfold std_consistent_S. apply (edges_all (emb_S ctxS_ex) (fun e => e_std (fst (snd e)) =? e_G (fst (snd e)) - e_H (fst (snd e)))
                   (fun _ _ x => e_std (fst x) = e_G (fst x) - e_H (fst x))); [intros u v x; apply Z.eqb_eq|reflexivity].
Qed.

(** * the renumbering clause at the level of the REACTION (the pair of molecule graphs): renumbering the atoms of both sides
    renumbers the centre and every context of the ITS that ITSConstruction builds, for every option value
    (C01's equivariance of the construction composed with theorems 4, 39 and 31) *)
Theorem reaction_renumbering (f : N -> N) (Hinj : forall a b, f a = f b -> a = b) (o : copts) (G H : mgraph) :
  get_rc (its_construct_o o (relabel f G) (relabel f H)) = relabel f (get_rc (its_construct_o o G H)) /\
  (forall k : Z, extract_k_z (its_construct_o o (relabel f G) (relabel f H)) k = relabel f (extract_k_z (its_construct_o o G H) k)) /\
  (forall K d m, wf G -> wf H ->
     get_rc_S K d m (emb_S (its_construct_S o (relabel f G) (relabel f H))) = relabel f (get_rc_S K d m (emb_S (its_construct_S o G H)))).
Proof.
  destruct (C01_OptsProof.equivariant_opts f Hinj o G H (LG [] [])) as (E1 & E2 & _).
  split; [rewrite E1; apply (rc_equivariant f Hinj)|]. split.
  - intros k. rewrite E1. apply (extract_k_z_equivariant f Hinj).
  - intros K d m WG WH. assert (wf (emb_S (its_construct_S o G H))) as W by (apply wf_gmap; apply C01_OptsProof.gen_wf; assumption).
    rewrite E2.
    assert (emb_S (relabel f (its_construct_S o G H)) = relabel f (emb_S (its_construct_S o G H))) as ->.
    { symmetry. apply relabel_gmap. }
    apply (rcS_equivariant f Hinj). exact W.
Qed.

(** * get_rc commutes with every map of label VALUES that commutes with the attribute selection and keeps "is a hydrogen" and
    "charge changes" — e.g. renumbering the atom_map labels (what renumbering a reaction does besides renumbering the node ids) *)
Theorem rcx_label_map (h : xnode -> xnode) K d m (g : xits) :
  (forall a, h (sel_attr K a) = sel_attr K (h a)) -> (forall a, h (sel_attr_hh K a) = sel_attr_hh K (h a)) ->
  (forall a, ish_x (h a) = ish_x a) -> (forall a, charge_changed (h a) = charge_changed a) ->
  gmapn h (get_rc_x K d m g) = get_rc_x K d m (gmapn h g).
Proof. intros H1 H2 H3 H4. exact (get_rc_g_map (sel_attr K) (sel_attr_hh K) ish_x charge_changed (sel_attr K) (sel_attr_hh K) ish_x charge_changed h H1 H2 H3 H4 d m g). Qed.

(** renumbering the atom_map labels by any function on integers *)
Definition map_amap (fz : Z -> Z) (a : xnode) : xnode :=
  XN (x_el a) (x_ch a) (option_map fz (x_amap a)) (x_arom a) (x_hc a) (x_nb a) (x_gh a).

Corollary rcx_amap_renumbering (fz : Z -> Z) K d m (g : xits) :
  get_rc_x K d m (gmapn (map_amap fz) g) = gmapn (map_amap fz) (get_rc_x K d m g).
Proof.
  symmetry. apply rcx_label_map; intros [el ch am ar hc nb gh]; unfold map_amap, sel_attr, sel_attr_hh, ish_x, charge_changed; simpl;
    rewrite ?pick_map; reflexivity.
Qed.

(** both at once: node ids by an injective f, atom_map labels by fz — the centre of the renumbered ITS is the renumbered centre *)
Corollary rcx_full_renumbering (f : N -> N) (Hinj : forall a b, f a = f b -> a = b) (fz : Z -> Z) K d m (g : xits) :
  get_rc_x K d m (relabel f (gmapn (map_amap fz) g)) = relabel f (gmapn (map_amap fz) (get_rc_x K d m g)).
Proof. rewrite (rcx_equivariant f Hinj), rcx_amap_renumbering. reflexivity. Qed.

Example C02_amap_renumbering_nonvacuous :
  get_rc_x K_default true true (relabel (N.add 10) (gmapn (map_amap (Z.add 10)) (emb ex_its))) =
    relabel (N.add 10) (gmapn (map_amap (Z.add 10)) (get_rc_x K_default true true (emb ex_its))) /\
  gmapn (map_amap (Z.add 10)) (emb ex_its) <> emb ex_its /\ gnodes (get_rc_x K_default true true (emb ex_its)) <> [].
Proof.
  split; [apply rcx_full_renumbering; intros a b; apply N.add_cancel_l|]. split; vm_compute; discriminate.
Qed.

(** * non-vacuity of the theorems above, on the reaction  H-H + C=C -> H-H + C-C  (sv_G, sv_H of proof/C02_StoreEquiv.v)
    and on an aromatic bond that becomes single (ignore_aromaticity) *)
Definition ar_G : mgraph := LG [(1%N, GN 70%N true 1 0 (Some []) 1); (2%N, GN 70%N true 1 0 (Some []) 2); (3%N, GN 82%N false 1 0 (Some []) 3)] [(1%N, 2%N, 3); (2%N, 3%N, 2)].
Definition ar_H : mgraph := LG [(1%N, GN 70%N false 2 0 (Some []) 1); (2%N, GN 70%N false 1 0 (Some []) 2); (3%N, GN 82%N false 0 0 (Some []) 3)] [(1%N, 2%N, 2); (2%N, 3%N, 4)].
Example C02_round5_more_nonvacuous :
  (* unequalS_sub_centre *)
  unequal_nodes_g (emb_S (its_construct_S (CO false true dflt_nattr) sv_G sv_H)) = [4%N; 3%N] /\
  (* rcS_edges_ia / construct_S_consistent: the 1.5 -> 1 bond is zeroed and not in the centre, the 1 -> 2 bond is *)
  ia_consistent_S (emb_S (its_construct_S (CO true false dflt_nattr) ar_G ar_H)) /\
  adj (get_rc_S K_default false false (emb_S (its_construct_S (CO true false dflt_nattr) ar_G ar_H))) 1%N 2%N = None /\
  adj (get_rc_S K_default false false (emb_S (its_construct_S (CO true false dflt_nattr) ar_G ar_H))) 2%N 3%N = Some (IE 2 4 (-2), Some false) /\
  adj (emb_S (its_construct_S (CO true false dflt_nattr) ar_G ar_H)) 1%N 2%N = Some (IE 3 2 0, None) /\
  (* reaction_renumbering *)
  wf sv_G /\ wf sv_H /\
  get_rc_S K_default true true (emb_S (its_construct_S (CO false true dflt_nattr) (relabel (N.add 10) sv_G) (relabel (N.add 10) sv_H))) =
    relabel (N.add 10) (get_rc_S K_default true true (emb_S (its_construct_S (CO false true dflt_nattr) sv_G sv_H))) /\
  node_ids (get_rc (its_construct_o (CO false true dflt_nattr) (relabel (N.add 10) sv_G) (relabel (N.add 10) sv_H))) = [13%N; 14%N; 11%N; 12%N] /\
  (* ctxS_construct *)
  gmapn flat (extract_k_S (emb_S (its_construct_S (CO false true dflt_nattr) sv_G sv_H)) 1) = emb (extract_k (its_construct_o (CO false true dflt_nattr) sv_G sv_H) 1).
Proof.
  assert (wf sv_G) as WG by (apply wfb_sound; reflexivity).
  assert (wf sv_H) as WH by (apply wfb_sound; reflexivity).
  split; [vm_compute; reflexivity|]. split; [apply construct_S_consistent; reflexivity|].
  do 3 (split; [vm_compute; reflexivity|]). split; [exact WG|]. split; [exact WH|].
  split; [apply (reaction_renumbering (N.add 10) (fun a b => proj1 (N.add_cancel_l a b 10%N))); assumption|].
  split; [vm_compute; reflexivity|]. apply ctxS_construct; [|lia]. exact (proj1 C02_sides_store_true_nonvacuous).
Qed.

Example C02_ball_facts_nonvacuous :
  dist_le_g (ball_sub (emb_S ctxS_ex) [3%N] 2) [3%N] 2 5%N /\ ~ In 6%N (node_ids (ball_sub (emb_S ctxS_ex) [3%N] 2)) /\
  knn_g (emb_S ctxS_ex) (knn_g (emb_S ctxS_ex) [3%N] 1) 2 = [6%N; 5%N; 3%N; 4%N].
Proof.
  split; [|split; [vm_compute; intuition discriminate|vm_compute; reflexivity]].
  apply ball_connected_to_seeds; [exact (proj1 C02_ctxS_nonvacuous)| |vm_compute; auto].
  intros s [<-|[]]. vm_compute. auto.
Qed.

(** without [disconnected] the third alternative of [rcS_nodes] is empty *)
Lemma rcS_nodes_conn K m (g : sits) : wf g -> forall n b,
  label (get_rc_S K false m g) n = Some b <->
  exists a, label g n = Some a /\
    ((inc_end_S m g n /\ b = selS K a) \/ (~ inc_end_S m g n /\ hh_end_S g n /\ b = selS_hh K a)).
Proof.
  intros W n b. rewrite (rcS_nodes K false m g W n b). split; intros (a & La & Cases); exists a; (split; [exact La|]).
  - destruct Cases as [C|[C|(_ & _ & D & _)]]; [left; exact C|right; exact C|discriminate].
  - destruct Cases as [C|C]; [left; exact C|right; left; exact C].
Qed.

(** * the maximum-radius context of a graph of any label shape contains its extension path *)
Theorem lre_path_in_context_S (g : sits) : wf g ->
  forall x, In x (lre (skel g) (node_ids (get_rc_S K_default false false g))) -> In x (node_ids (extract_k_S_z g (-1))).
Proof.
  intros W x I. destruct (extract_k_S_z_minus1 g W) as (_ & HN & _). apply HN, (lre_in_ball (skel g) g); [|exact I].
  intros u v Sd. rewrite std0_skel in Sd. destruct (adj g u v); discriminate.
Qed.
