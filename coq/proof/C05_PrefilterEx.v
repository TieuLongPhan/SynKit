(** C05 — non-vacuity for proof/C05_Prefilter.v (halogen exchange on ClCCBr.ClCCBr, proof/C05_Cap.v) *)
From Coq Require Import List ZArith.
From SK Require Import lib.LGraph.
From SK Require Import model.C05_Model proof.C05_Cap proof.C05_Order proof.C05_Partial proof.C05_PartialCap.
Import ListNotations.

Example prefilter_examples :
  (* default cap: the guard does not fire, the option changes nothing: 4 glued graphs *)
  @prefilter_fires (thr_of None) cx_host cx_p = false /\
  length (@glued_of_pf (thr_of None) true 0%N cx_host cx_p) = 4%nat /\
  (* a pattern atom without candidate (no Cl / Br in CCS.CS): the guard fires *)
  @prefilter_fires (thr_of None) px_host cx_p = true /\ @glued_of_pf (thr_of None) true 0%N px_host cx_p = [] /\
  (* cap 1: 4 * 2 * 4 * 2 = 64 candidate combinations do not exceed 1 * 10000, the guard does not fire, the cap empties the
     exhaustive search (4 embeddings > 1) *)
  @prefilter_fires (thr_of (Some 1%N)) cx_host cx_p = false /\ @glued_of_pf (thr_of (Some 1%N)) true 0%N cx_host cx_p = [] /\
  (* cap 0: 64 > 0, the guard fires *)
  @prefilter_fires (thr_of (Some 0%N)) cx_host cx_p = true.
Proof. repeat apply conj; vm_compute; reflexivity. Qed.

(** non-vacuity of the decision invariance: the substrate CCS.CS stored in two orders, premises evaluated *)
Example prefilter_order_nonvacuous :
  same_graph px_host px_host2 /\ gnodes px_host2 <> gnodes px_host /\
  C06_Model.wfb (host_c06 px_host) = true /\ C06_Model.wfb (host_c06 px_host2) = true /\
  C06_Model.wfb (pat_c06 (p_pat px_p)) = true /\
  @prefilter_fires (thr_of None) px_host2 px_p = @prefilter_fires (thr_of None) px_host px_p /\
  @prefilter_fires (thr_of None) px_host px_p = false /\
  @prefilter_fires (thr_of (Some 0%N)) px_host2 px_p = true /\ @prefilter_fires (thr_of (Some 0%N)) px_host px_p = true.
Proof.
  split; [exact px_same|]. repeat apply conj; try (vm_compute; reflexivity). vm_compute; discriminate.
Qed.
