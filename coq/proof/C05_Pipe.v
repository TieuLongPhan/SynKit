(** C05 — the stages between matching and gluing commute with relabelling (conversion to the matcher's
    graphs, the enumerator, rule automorphisms, pruning); strategy relation BACKTRACK = COMPONENT when non-empty;
    the pruning loses no class of matches. Stdlib lists. *)
From Coq Require Import List ZArith.
From SK Require Import lib.LGraph.
From SK Require Import model.C03_Model model.C05_Model proof.C05_Proof proof.C05_Glue.
From SK Require proof.C11_Dedup.
Import ListNotations.

Section WithThr.
Context {TH : Thr}.


Lemma host_c06_relabel f (g : hostg) : host_c06 (relabel f g) = relabel f (host_c06 g).
Proof. exact (relabel_map_labels f (fun a => ([a_el a; zcode (a_ch a)], Z.to_N (a_hc a))) (fun o => [zcode o]) g). Qed.
Lemma pat_c06_relabel f (g : molg) : pat_c06 (relabel f g) = relabel f (pat_c06 g).
Proof. exact (relabel_map_labels f (fun a => ([m_el a; zcode (m_ch a)], Z.to_N (m_hc a))) (fun o => [zcode o]) g). Qed.

Lemma lab_relabel f (Hf : inj f) (g : C06_Model.graph) u : C06_Model.lab (relabel f g) (f u) = C06_Model.lab g u.
Proof. unfold C06_Model.lab. rewrite (label_relabel _ _ f Hf g u). reflexivity. Qed.

Lemma monos_on'_relabel sg pi (Hs : inj sg) (Hp : inj pi) (H P : C06_Model.graph) hn pn :
  monos_on' (relabel pi H) (relabel sg P) (map pi hn) (map sg pn) = map (mv sg pi) (monos_on' H P hn pn).
Proof.
  unfold monos_on'. rewrite !monos'_eq.
  apply (monos_equiv _ _ sg pi Hp hn (C06_Model.lab P) (C06_Model.lab H)).
  - intros p. apply lab_relabel; assumption.
  - intros h. apply lab_relabel; assumption.
  - intros p q. apply adj_relabel; assumption.
  - intros h k. apply adj_relabel; assumption.
Qed.

Lemma all_loop_map (f : C06_Model.mapping -> C06_Model.mapping) maxr thr it : forall acc n,
  C06_Model.all_loop maxr thr (map f it) (map f acc) n = map f (C06_Model.all_loop maxr thr it acc n).
Proof.
  induction it as [|m it IH]; intros acc n; cbn [C06_Model.all_loop map].
  - rewrite map_rev. reflexivity.
  - destruct (C06_Model.capped maxr (N.succ n)).
    + change (f m :: map f acc) with (map f (m :: acc)). rewrite <- map_rev. reflexivity.
    + destruct (thr <? N.succ n)%N; [reflexivity|]. apply (IH (m :: acc)).
Qed.

Lemma lenN_map {X Y} (f : X -> Y) l : C06_Model.lenN (map f l) = C06_Model.lenN l.
Proof. unfold C06_Model.lenN. rewrite map_length. reflexivity. Qed.

Lemma rule_auts_relabel sg (Hs : inj sg) (rc : its) : rule_auts (relabel sg rc) = map (mv sg sg) (rule_auts rc).
Proof.
  unfold rule_auts. rewrite !monos'_eq, node_ids_relabel.
  apply (monos_equiv _ _ sg sg Hs (node_ids rc) (label rc) (label rc)).
  - intros p. apply label_relabel; assumption.
  - intros p. apply label_relabel; assumption.
  - intros p q. apply adj_relabel; assumption.
  - intros p q. apply adj_relabel; assumption.
Qed.

Section PruneEquiv.
  Variables sg pi : N -> N.
  Hypothesis sg_inj : inj sg.
  Hypothesis pi_inj : inj pi.

  Lemma pair_mem_mv p h l : C11_Model.pair_mem (sg p, pi h) (mv sg pi l) = C11_Model.pair_mem (p, h) l.
  Proof.
    unfold C11_Model.pair_mem, mv. induction l as [|[q k] r IH]; simpl; [reflexivity|].
    unfold C11_Model.pair_eqb at 1 3; simpl. rewrite (inj_eqb sg p q sg_inj), (inj_eqb pi h k pi_inj), IH. reflexivity.
  Qed.

  Lemma forallb_mem_mv a b :
    forallb (fun x => C11_Model.pair_mem x (mv sg pi b)) (mv sg pi a) = forallb (fun x => C11_Model.pair_mem x b) a.
  Proof.
    induction a as [|[p h] r IH]; simpl; [reflexivity|]. rewrite pair_mem_mv. f_equal. apply IH.
  Qed.

  Lemma set_eqb_mv a b : C11_Model.set_eqb (mv sg pi a) (mv sg pi b) = C11_Model.set_eqb a b.
  Proof. unfold C11_Model.set_eqb. rewrite !forallb_mem_mv. reflexivity. Qed.

  Lemma act_transport s m : C11_Model.act (mv sg sg s) (mv sg pi m) = mv sg pi (C11_Model.act s m).
  Proof.
    unfold C11_Model.act, mv. rewrite !map_map. apply map_ext. intros [p h]; simpl.
    pose proof (mget_mv sg sg sg_inj s p) as E. unfold mget, mv in E. rewrite E.
    destruct (assoc p s); reflexivity.
  Qed.

  Lemma existsb_set_eqb_mv x seen :
    existsb (C11_Model.set_eqb (mv sg pi x)) (map (mv sg pi) seen) = existsb (C11_Model.set_eqb x) seen.
  Proof. induction seen as [|y r IH]; simpl; [reflexivity|]. rewrite set_eqb_mv, IH. reflexivity. Qed.

  Lemma dedup_aut_go_mv A xs : forall seen,
    C11_Model.dedup_aut_go (fun m => m) (map (mv sg sg) A) (map (mv sg pi) xs) (map (mv sg pi) seen)
    = map (mv sg pi) (C11_Model.dedup_aut_go (fun m => m) A xs seen).
  Proof.
    induction xs as [|x r IH]; intros seen; cbn [map C11_Model.dedup_aut_go]; [reflexivity|].
    rewrite existsb_set_eqb_mv. destruct (existsb (C11_Model.set_eqb x) seen); [apply IH|].
    cbn [map]. f_equal.
    etransitivity; [|apply (IH (x :: map (fun s => C11_Model.act s x) A ++ seen))]. f_equal.
    cbn [map]. f_equal. rewrite map_app, !map_map. f_equal. apply map_ext. intros s. apply act_transport.
  Qed.

  Lemma prune_relabel (rc : its) raw :
    prune (relabel sg rc) (map (mv sg pi) raw) = map (mv sg pi) (prune rc raw).
  Proof.
    unfold prune. rewrite map_length. unfold mapping. destruct (1 <? length raw)%nat; [|reflexivity].
    unfold C11_Model.dedup_aut. rewrite rule_auts_relabel by assumption.
    apply (dedup_aut_go_mv (rule_auts rc) raw []).
  Qed.
End PruneEquiv.

Definition relabel_prep (sg : N -> N) (p : prepared) : prepared :=
  Prep (relabel sg (p_rc p)) (relabel sg (p_l p)) (relabel sg (p_r p)) (p_flag p) (relabel sg (p_pat p)).

(** ** strategies: BACKTRACK returns the COMPONENT result whenever that is non-empty *)
Lemma matches_bt_comp host pat : matches 1%N host pat <> [] -> matches 2%N host pat = matches 1%N host pat.
Proof.
  unfold matches, C06_Model.find; simpl. unfold C06_Model.find_bt.
  set (H := host_c06 host). set (P := pat_c06 pat).
  destruct (C06_Model.find_comp (monos_on' H P) 0 thr_val true H P) as [|m r] eqn:E; [|reflexivity].
  simpl. intros Hne. exfalso. apply Hne. destruct (thr_val <? _)%N; reflexivity.
Qed.

Lemma kept_bt_comp host p : raw_of 1%N host p <> [] -> kept_of 2%N host p = kept_of 1%N host p.
Proof. intros H. unfold kept_of, raw_of in *. rewrite matches_bt_comp by exact H. reflexivity. Qed.

Lemma glued_bt_comp host p : p_flag p = false -> raw_of 1%N host p <> [] -> glued_of 2%N host p = glued_of 1%N host p.
Proof.
  intros Hflag H. unfold glued_of. rewrite kept_bt_comp by exact H.
  apply flat_map_ext. intros m. unfold glue_all, glue_base. rewrite Hflag. reflexivity.
Qed.

(** On the explicit-hydrogen path the re-match of a kept match runs with the strategy again.  [rematch] is the pair of
    glued lists of COMPONENT and BACKTRACK for one kept match, both read off ONE component-aware search of the
    hydrogen-expanded substrate (BACKTRACK = that search, or the exhaustive one when it found nothing). *)
Definition rematch (host : hostg) (rc : its) (l : molg) (m : mapping) : list its * list its :=
  let hx := h_to_explicit host (sort_N (map snd m)) in
  let H := host_c06 hx in let P := pat_c06 l in
  let c := C06_Model.find_comp (monos_on' H P) 0 thr_val true H P in
  let gl (r : list mapping) :=
    flat_map (fun x => match glue hx rc x with Some T => [T] | None => [] end)
             (if (thr_val <? C06_Model.lenN r)%N then [] else r) in
  (gl c, gl match c with [] => C06_Model.find_all (monos_on' H P) 0 thr_val H P | x :: r => x :: r end).

Lemma rematch_eq host rc l m : rematch host rc l m = (glue_all 1%N true host rc l m, glue_all 2%N true host rc l m).
Proof. reflexivity. Qed.

Lemma glued_comp_bt_explicit host p :
  p_flag p = true -> raw_of 1%N host p <> [] ->
  let rs := map (rematch host (p_rc p) (p_l p)) (kept_of 1%N host p) in
  glued_of 1%N host p = flat_map fst rs /\ glued_of 2%N host p = flat_map snd rs.
Proof.
  intros Hflag H rs. subst rs. rewrite !flat_map_map'. unfold glued_of. rewrite (kept_bt_comp _ _ H), Hflag.
  split; apply flat_map_ext; intros m; rewrite rematch_eq; reflexivity.
Qed.

(** when the substrate has fewer components than the pattern the component-aware search IS the exhaustive search *)
Lemma matches_comp_all_few host pat :
  (length (C06_Model.comps (pat_c06 pat)) <> 0)%nat ->
  (length (C06_Model.comps (host_c06 host)) < length (C06_Model.comps (pat_c06 pat)))%nat ->
  matches 1%N host pat = matches 0%N host pat.
Proof.
  intros Hne Hlt. unfold matches, C06_Model.find; simpl. unfold C06_Model.find_comp.
  apply Nat.eqb_neq in Hne. rewrite Hne. apply Nat.ltb_lt in Hlt. rewrite Hlt. reflexivity.
Qed.

(** ** the pruning keeps its input order and loses no class of matches *)
Lemma prune_subseq rc raw : C11_Dedup.subseq (prune rc raw) raw.
Proof.
  unfold prune. destruct (1 <? length raw)%nat; [apply C11_Dedup.dedup_aut_subseq | apply C11_Dedup.subseq_refl].
Qed.

Lemma prune_complete rc raw m : In m raw ->
  exists k, In k (prune rc raw) /\
    (k = m \/ C11_Model.set_eqb m k = true \/ exists s, In s (rule_auts rc) /\ C11_Model.set_eqb m (C11_Model.act s k) = true).
Proof.
  intros Hin. unfold prune. destruct (1 <? length raw)%nat.
  - destruct (C11_Dedup.dedup_aut_complete _ (fun m => m) (rule_auts rc) raw m Hin) as (k & Hk & Hc).
    exists k. split; [exact Hk | exact Hc].
  - exists m. split; auto.
Qed.

End WithThr.
