(** C20 — PetriAnalyzer kept while the analysed network is edited: the stored siphons / traps are always exactly
    those of the network as it was at the last successful compute_siphons_traps() — a compute never returns or keeps
    an earlier result. *)
From Coq Require Import ZArith List.
Import ListNotations.
From SK Require Import model.C20_Model proof.C20_Run.
Local Open Scope nat_scope.

Definition computable (net : network) : bool := split_ok (bipartite_of (fst net) (snd net)).

(** the network the analyzer refers to after the calls [ops] *)
Fixpoint last_net (cur : network) (ops : list an_op) : network :=
  match ops with
  | [] => cur
  | AnEdit n :: ops' => last_net n ops'
  | _ :: ops' => last_net cur ops'
  end.

(** the network of the last successful compute ([acc] before the calls) *)
Fixpoint computed_for (cur : network) (acc : option network) (ops : list an_op) : option network :=
  match ops with
  | [] => acc
  | AnCompute :: ops' => computed_for cur (if computable cur then Some cur else acc) ops'
  | AnEdit n :: ops' => computed_for n acc ops'
  | AnRead :: ops' => computed_for cur acc ops'
  end.

Definition results_of (k : option nat) (o : option network) (st : an_state) : Prop :=
  match o with
  | None => an_siphons st = None /\ an_traps st = None
  | Some net => an_siphons st = find_siphons (bipartite_of (fst net) (snd net)) k /\
                an_traps st = find_traps (bipartite_of (fst net) (snd net)) k /\ computable net = true
  end.

(** a compute on a network with species and reactions stores both results; otherwise it raises before anything is stored *)
Lemma an_compute_spec k st :
  an_step k st AnCompute =
  let G := bipartite_of (fst (an_net st)) (snd (an_net st)) in
  if computable (an_net st) then (AN (an_net st) (find_siphons G k) (find_traps G k), AnDone) else (st, AnErr).
Proof.
  cbn [an_step]. unfold computable, find_siphons, find_traps, find_sets.
  destruct (split_ok _); reflexivity.
Qed.

Lemma an_step_net k st op : an_net (fst (an_step k st op)) = last_net (an_net st) [op].
Proof.
  destruct op; [|reflexivity..]. rewrite an_compute_spec. cbv zeta. destruct (computable (an_net st)); reflexivity.
Qed.

Lemma an_exec_net k ops : forall st, an_net (an_exec k st ops) = last_net (an_net st) ops.
Proof.
  induction ops as [|op ops IH]; intros st; [reflexivity|].
  change (an_exec k st (op :: ops)) with (an_exec k (fst (an_step k st op)) ops).
  rewrite IH, an_step_net. destruct op; reflexivity.
Qed.

Lemma an_step_inv k st op acc :
  results_of k acc st -> results_of k (computed_for (an_net st) acc [op]) (fst (an_step k st op)).
Proof.
  intros H. destruct op as [| |n].
  - rewrite an_compute_spec. cbn [computed_for].
    destruct (computable (an_net st)) eqn:E; [|exact H].
    split; [reflexivity|]. split; [reflexivity|exact E].
  - exact H.
  - destruct acc as [net|]; exact H.
Qed.

Lemma an_exec_inv k ops : forall st acc,
  results_of k acc st -> results_of k (computed_for (an_net st) acc ops) (an_exec k st ops).
Proof.
  induction ops as [|op ops IH]; intros st acc H; [exact H|].
  change (an_exec k st (op :: ops)) with (an_exec k (fst (an_step k st op)) ops).
  pose proof (IH _ _ (an_step_inv k st op acc H)) as H'. rewrite an_step_net in H'. destruct op; exact H'.
Qed.

Lemma main_analyzer_no_stale :
  forall (k : option nat) (net0 : network) (ops : list an_op),
  let st := an_exec k (AN net0 None None) ops in
  an_net st = last_net net0 ops /\
  match computed_for net0 None ops with
  | None => an_siphons st = None /\ an_traps st = None
  | Some net => an_siphons st = find_siphons (bipartite_of (fst net) (snd net)) k /\
                an_traps st = find_traps (bipartite_of (fst net) (snd net)) k
  end.
Proof.
  intros k net0 ops st.
  pose proof (an_exec_inv k ops (AN net0 None None) None (conj eq_refl eq_refl)) as Hr.
  split; [apply an_exec_net|]. simpl in Hr. destruct (computed_for net0 None ops); [|exact Hr].
  destruct Hr as (H1 & H2 & _). split; assumption.
Qed.

Lemma computed_for_snoc ops : forall net0 acc,
  computable (last_net net0 ops) = true ->
  computed_for net0 acc (ops ++ [AnCompute]) = Some (last_net net0 ops).
Proof.
  induction ops as [|op ops IH]; intros net0 acc Hc; simpl in *.
  - now rewrite Hc.
  - destruct op; apply IH; exact Hc.
Qed.

Lemma main_analyzer_compute_current :
  forall (k : option nat) (net0 : network) (ops : list an_op),
  let cur := last_net net0 ops in
  computable cur = true ->
  let st := an_exec k (AN net0 None None) (ops ++ [AnCompute]) in
  an_siphons st = find_siphons (bipartite_of (fst cur) (snd cur)) k /\
  an_traps st = find_traps (bipartite_of (fst cur) (snd cur)) k.
Proof.
  intros k net0 ops cur Hc st.
  pose proof (main_analyzer_no_stale k net0 (ops ++ [AnCompute])) as [_ H].
  rewrite (computed_for_snoc ops net0 None Hc) in H. exact H.
Qed.

(** what a read at any position of a history ([an_run] is what the correspondence evaluates) returns: the stored fields *)
Lemma an_run_eq k ops : forall st, an_run k st ops = run (an_step k) snd st ops.
Proof.
  induction ops as [|op ops IH]; intros st; simpl; [reflexivity|].
  destruct (an_step k st op). simpl. now rewrite IH.
Qed.

Lemma main_analyzer_read :
  forall (k : option nat) (st : an_state) (ops1 ops2 : list an_op),
  nth_error (an_run k st (ops1 ++ AnRead :: ops2)) (length ops1) =
  Some (AnSets (an_siphons (an_exec k st ops1)) (an_traps (an_exec k st ops1))).
Proof. intros. rewrite an_run_eq. apply (run_nth (an_step k) snd). Qed.

(** Non-vacuity: A -> B analysed (siphon {A}, trap {B}), then B -> A added to the same network: a read still shows the
    first results (by design: nothing was recomputed), the next compute gives those of the edited network ({A,B} both). *)
Definition exa_net1 : network := (2, [([(0, 1%Z)], [(1, 1%Z)])]).
Definition exa_net2 : network := (2, [([(0, 1%Z)], [(1, 1%Z)]); ([(1, 1%Z)], [(0, 1%Z)])]).
Example ex_analyzer_history :
  an_run None (AN exa_net1 None None) [AnRead; AnCompute; AnRead; AnEdit exa_net2; AnRead; AnCompute; AnRead] =
  [AnSets None None; AnDone; AnSets (Some [[0]]) (Some [[1]]); AnDone; AnSets (Some [[0]]) (Some [[1]]); AnDone;
   AnSets (Some [[0; 1]]) (Some [[0; 1]])].
Proof. vm_compute. reflexivity. Qed.
