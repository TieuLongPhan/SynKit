(** C03 — rule preparation in the default mode, general templates (explicit hydrogens allowed): whatever
    _strip_explicit_h decides, the rule it returns is the template with SOME explicit hydrogen atoms removed — the
    remaining atoms in the same order with the same element, aromaticity, charge and neighbors on both sides (only
    hydrogen counts, hcount and h_pairs are rewritten), and exactly the template's bonds that touch no removed atom,
    unchanged.  So the heavy-atom skeleton of the rule, and every changed bond between heavy atoms, is the template's. *)
From Coq Require Import List NArith ZArith Bool.
From SK Require Import lib.Tok lib.LGraph model.C03_Model proof.C03_Proof proof.C03_Glue proof.C03_Backward proof.C03_Iso.
From Coq Require Import Permutation.
Import ListNotations.
Local Open Scope Z_scope.

Record skel (T0 g : its) (removed : list N) : Prop := {
  sk_H : forall h, In h removed -> is_H_i T0 h = true;
  sk_nodes : Forall2 same_core (gnodes g) (filter (keepn removed) (gnodes T0));
  sk_edges : gedges g = filter (keepe removed) (gedges T0) }.

(** * list lemmas *)
Lemma Forall2_map_l {A B} (R : A -> B -> Prop) (f : A -> A) l1 l2 :
  (forall p q, R p q -> R (f p) q) -> Forall2 R l1 l2 -> Forall2 R (map f l1) l2.
Proof. intros H. induction 1; simpl; constructor; auto. Qed.
Lemma Forall2_filter {A B} (R : A -> B -> Prop) (c1 : A -> bool) (c2 : B -> bool) l1 l2 :
  (forall p q, R p q -> c1 p = c2 q) -> Forall2 R l1 l2 -> Forall2 R (filter c1 l1) (filter c2 l2).
Proof.
  intros H. induction 1 as [|p q l1 l2 Hpq _ IH]; simpl; [constructor|].
  rewrite (H p q Hpq). destruct (c2 q); [constructor|]; auto.
Qed.
Lemma filter_filter {A} (f g : A -> bool) l : filter f (filter g l) = filter (fun x => g x && f x) l.
Proof. induction l as [|x r IH]; simpl; [reflexivity|]. destruct (g x); simpl; [destruct (f x)|]; rewrite ?IH; reflexivity. Qed.
Lemma filter_ext_all {A} (f g : A -> bool) l : (forall x, f x = g x) -> filter f l = filter g l.
Proof. intros H. induction l as [|x r IH]; simpl; [reflexivity|]. rewrite H, IH. reflexivity. Qed.
Lemma filter_true {A} (f : A -> bool) l : (forall x, f x = true) -> filter f l = l.
Proof. intros H. induction l as [|x r IH]; simpl; [reflexivity|]. rewrite H, IH. reflexivity. Qed.
Lemma Forall2_ids {A B} (R : N * A -> N * B -> Prop) l1 l2 :
  (forall p q, R p q -> fst p = fst q) -> Forall2 R l1 l2 -> map fst l1 = map fst l2.
Proof. intros H. induction 1 as [|p q l1 l2 Hpq _ IH]; simpl; [reflexivity|]. rewrite (H p q Hpq), IH. reflexivity. Qed.
Lemma filter_keepn_ext (R R' : list N) (l : list (N * inode)) : (forall h, In h R <-> In h R') -> filter (keepn R) l = filter (keepn R') l.
Proof.
  intros H. apply filter_ext. intros p. unfold keepn. f_equal.
  destruct (mem (fst p) R) eqn:E1, (mem (fst p) R') eqn:E2; try reflexivity.
  - apply mem_spec in E1. apply H in E1. apply mem_spec in E1. congruence.
  - apply mem_spec in E2. apply H in E2. apply mem_spec in E2. congruence.
Qed.
Lemma Forall2_refl_map {A} (R : A -> A -> Prop) (f : A -> A) l : (forall x, R (f x) x) -> Forall2 R (map f l) l.
Proof. intros H. induction l; simpl; constructor; auto. Qed.
Lemma Forall2_trans' {A} (R : A -> A -> Prop) l1 l2 l3 :
  (forall x y z, R x y -> R y z -> R x z) -> Forall2 R l1 l2 -> Forall2 R l2 l3 -> Forall2 R l1 l3.
Proof.
  intros Ht H. revert l3. induction H as [|x y l1 l2 Hxy _ IH]; intros l3 H3; inversion H3; subst; constructor; eauto.
Qed.
Lemma same_core_trans x y z : same_core x y -> same_core y z -> same_core x z.
Proof. unfold same_core. intros (A & B & C) (D & E & F). split; [|split]; etransitivity; eassumption. Qed.

Lemma Forall2_in_l {A B} (R : A -> B -> Prop) l1 l2 p : Forall2 R l1 l2 -> In p l1 -> exists q, In q l2 /\ R p q.
Proof. induction 1 as [|x y l1 l2 Hxy _ IH]; intros I; [destruct I|]. destruct I as [<-|I]; [eauto using in_eq|]. destruct (IH I) as (q & Iq & Rq). eauto using in_cons. Qed.

(** * graph operations preserve the skeleton *)
Lemma skel_upd T0 g removed n f :
  (forall a, set_hc (iG (f a)) 0 = set_hc (iG a) 0 /\ set_hc (iH (f a)) 0 = set_hc (iH a) 0) ->
  skel T0 g removed -> skel T0 (upd_node g n f) removed.
Proof.
  intros Hf [S1 S2 S3]. constructor; [exact S1| |exact S3].
  unfold upd_node; cbn [gnodes]. apply Forall2_map_l; [|exact S2].
  intros [k a] q (E1 & E2 & E3). destruct (N.eqb (fst (k, a)) n); [|repeat split; assumption].
  unfold same_core. cbn [fst snd] in *. destruct (Hf a) as [F1 F2]. split; [exact E1|]. split; [rewrite F1; exact E2|rewrite F2; exact E3].
Qed.

Lemma skel_remove T0 g removed h : is_H_i T0 h = true -> skel T0 g removed -> skel T0 (remove_node g h) (h :: removed).
Proof.
  intros Hh [S1 S2 S3]. constructor.
  - intros x [<-|I]; auto.
  - unfold remove_node; cbn [gnodes].
    replace (filter (keepn (h :: removed)) (gnodes T0))
      with (filter (fun p : N * inode => negb (N.eqb (fst p) h)) (filter (keepn removed) (gnodes T0))).
    + apply Forall2_filter; [|exact S2]. intros p q (E & _). rewrite E. reflexivity.
    + rewrite filter_filter. apply filter_ext_all. intros p. unfold keepn. simpl.
      destruct (N.eqb (fst p) h), (mem (fst p) removed); reflexivity.
  - unfold remove_node; cbn [gedges]. rewrite S3, filter_filter. apply filter_ext_all. intros [[a b] x]. unfold keepe. simpl.
    destruct (N.eqb a h), (N.eqb b h), (mem a removed), (mem b removed); reflexivity.
Qed.

Lemma bump_i_core pid a : set_hc (iG (bump_i pid a)) 0 = set_hc (iG a) 0 /\ set_hc (iH (bump_i pid a)) 0 = set_hc (iH a) 0.
Proof. split; reflexivity. Qed.

Lemma skel_strip_i_exact T0 g removed h pid : (has_node g h = true -> is_H_i T0 h = true) -> skel T0 g removed ->
  skel T0 (strip_i g h pid) (if has_node g h then h :: removed else removed).
Proof.
  intros Hh S. unfold strip_i. destruct (has_node g h); [|exact S].
  apply skel_remove; [apply Hh; reflexivity|].
  generalize (nbrs g h). intros l. revert g S. induction l as [|x r IH]; intros g S; [exact S|].
  cbn [fold_left]. apply IH. destruct (is_H_i g x); [exact S|]. apply skel_upd; [apply bump_i_core|exact S].
Qed.

Lemma skel_nil tpl : skel tpl (init_i (standardize_hydrogen tpl)) [].
Proof.
  constructor; [intros h []| |].
  - unfold init_i, standardize_hydrogen, map_nodes; cbn [gnodes]. rewrite map_map, (filter_true (keepn [])) by reflexivity.
    apply Forall2_refl_map. intros [k a]. repeat split.
  - unfold init_i, standardize_hydrogen, map_nodes; cbn [gedges]. rewrite (filter_true (keepe [])) by reflexivity. reflexivity.
Qed.

Lemma skel_ids T0 g R : skel T0 g R -> node_ids g = map fst (filter (keepn R) (gnodes T0)).
Proof. intros [_ S2 _]. unfold node_ids. apply (Forall2_ids _ _ _ (fun p q (H : same_core p q) => proj1 H) S2). Qed.
Lemma ids_filter {A} (c : N -> bool) (l : list (N * A)) : map fst (filter (fun p => c (fst p)) l) = filter c (map fst l).
Proof. induction l as [|[k a] r IH]; simpl; [reflexivity|]. destruct (c k); simpl; rewrite IH; reflexivity. Qed.
Lemma skel_ids_filter T0 g R : skel T0 g R -> node_ids g = filter (fun n => negb (mem n R)) (node_ids T0).
Proof. intros S. rewrite (skel_ids T0 g R S). apply (ids_filter (fun n => negb (mem n R))). Qed.
Lemma skel_node_kept T0 g R h : skel T0 g R -> has_node g h = true -> ~ In h R.
Proof.
  intros S Hh C. apply has_node_in in Hh. rewrite (skel_ids_filter T0 g R S) in Hh. apply filter_In in Hh.
  rewrite (proj2 (mem_spec h R) C) in Hh. destruct Hh; discriminate.
Qed.
Lemma skel_nodup T0 g R : NoDup (node_ids T0) -> skel T0 g R -> NoDup (node_ids g).
Proof. intros Hnd S. rewrite (skel_ids T0 g R S). apply (nodup_map_filter fst). exact Hnd. Qed.

Lemma h_nodes_i_H (g : its) h : NoDup (node_ids g) -> In h (h_nodes_i g) -> is_H_i g h = true.
Proof.
  intros Hnd I. unfold h_nodes_i in I. apply in_map_iff in I. destruct I as ([k a] & <- & I). apply filter_In in I.
  destruct I as [I Ea]. cbn [fst snd] in *. unfold is_H_i, label. rewrite (assoc_nodup_in k (gnodes g) a Hnd I). exact Ea.
Qed.

(** * the hydrogens the code strips are hydrogen atoms of the template *)
Lemma skel_H_transfer T0 g removed h : NoDup (node_ids T0) -> skel T0 g removed -> is_H_i g h = true -> is_H_i T0 h = true.
Proof.
  intros Hnd [_ S2 _] H. unfold is_H_i in *. destruct (label g h) as [a|] eqn:El; [|discriminate].
  unfold label in El. apply assoc_in in El. destruct (Forall2_in_l _ _ _ _ S2 El) as ([k a0] & I & (E1 & E2 & _)).
  cbn [fst snd] in *. subst k. apply filter_In in I. destruct I as [I _].
  unfold label. rewrite (assoc_nodup_in h (gnodes T0) a0 Hnd I).
  assert (a_el (iG a0) = a_el (iG a)) by (destruct (iG a0), (iG a); inversion E2; reflexivity). congruence.
Qed.

Lemma shared_h_incl l r hs : shared_h l r = Some hs -> incl hs (h_nodes_m l).
Proof.
  unfold shared_h. generalize (h_nodes_m l). intros ns. revert hs. induction ns as [|n ns IH]; cbn [fold_right]; intros hs H.
  - inversion H; subst. intros x [].
  - destruct (fold_right _ (Some []) ns) as [acc|] eqn:E; [|discriminate].
    specialize (IH acc eq_refl).
    destruct (has_node r n).
    + destruct (fully_removable l r n) as [[|]|]; inversion H; subst; intros x I; [destruct I as [<-|I]; [left; reflexivity|]|]; right; apply IH; assumption.
    + inversion H; subst. intros x I. right. apply IH. exact I.
Qed.

(** the hydrogens that step 2 strips are hydrogen atoms of the template *)
Lemma shared_h_template tpl hs : NoDup (node_ids tpl) ->
  shared_h (init_m (dec_side iG eG (standardize_hydrogen tpl))) (init_m (dec_side iH eH (standardize_hydrogen tpl))) = Some hs ->
  forall h, In h (sort_N hs) -> is_H_i tpl h = true.
Proof.
  intros Hnd Eh h I. rewrite in_sort_N_iff in I. apply (shared_h_incl _ _ _ Eh) in I.
  unfold h_nodes_m in I. apply in_map_iff in I. destruct I as ([k a] & <- & I). apply filter_In in I. destruct I as [I Ea].
  cbn [fst snd] in *. unfold init_m, map_nodes, dec_side, standardize_hydrogen, map_nodes in I. cbn [gnodes] in I.
  rewrite !map_map in I. apply in_map_iff in I. destruct I as ([k0 a0] & E & I). cbn [fst snd] in E. inversion E; subst k a. clear E.
  cbn [m_el dec_node std_h_node iG set_hc a_el] in Ea.
  unfold is_H_i, label. rewrite (assoc_nodup_in k0 (gnodes tpl) a0 Hnd I). exact Ea.
Qed.

Lemma synrule_default_inv tpl rc l r : synrule tpl true = Some (rc, l, r) ->
  exists rc1,
    strip_explicit_h (standardize_hydrogen tpl) (dec_side iG eG (standardize_hydrogen tpl)) (dec_side iH eH (standardize_hydrogen tpl))
      = Some (rc1, l, r) /\
    refresh_types rc1 l r = Some rc.
Proof.
  unfold synrule. cbn [negb]. unfold its_decompose. cbn [fst snd].
  destruct (strip_explicit_h _ _ _) as [[[rc1 l1] r1]|]; [|discriminate].
  destruct (refresh_types rc1 l1 r1) as [rc'|] eqn:Er; [|discriminate]. intros [= <- <- <-]. eauto.
Qed.

(** * the folds of _strip_explicit_h, rc component *)
Lemma skel_strip_shared T0 hs : (forall h, In h hs -> is_H_i T0 h = true) ->
  forall (t : triple) pid removed, skel T0 (fst (fst t)) removed ->
  exists removed', skel T0 (fst (fst (fst (fold_left (fun (st : triple * N) h =>
         let '(rc, l, r, pid) := st in
         (strip_i rc h (Some pid), strip_m l h (Some pid), strip_m r h (Some pid), N.succ pid)) hs (t, pid))))) removed'.
Proof.
  intros Hall t pid removed S. apply (fold_left_inv _ (fun st => exists removed', skel T0 (fst (fst (fst st))) removed')); [|eauto].
  intros [[[rc l] r] p] h I [removed0 S0]. cbn [fst] in *. eexists. exact (skel_strip_i_exact T0 rc removed0 h (Some p) (fun _ => Hall h I) S0).
Qed.

(** step 3, whichever graph it updates: an invariant of the updates it makes is an invariant of the fold, and the fold
    does nothing when no hydrogen of the list is removable on both sides *)
Lemma step3_fold_inv (P : triple -> Prop) (upd : its -> molg -> molg -> N -> triple) hs :
  (forall rc l r h, In h hs -> P (rc, l, r) -> fully_removable l r h = Some true -> P (upd rc l r h)) ->
  forall t t', P t ->
  fold_left (fun (st : option triple) h =>
      match st with
      | None => None
      | Some (rc, l, r) => match fully_removable l r h with
                           | Some true => Some (upd rc l r h) | Some false => st | None => None end
      end) hs (Some t) = Some t' -> P t'.
Proof.
  induction hs as [|h r IH]; intros Hupd t t' Pt H; [simpl in H; inversion H; subst; exact Pt|].
  cbn [fold_left] in H. destruct t as [[rc l] rr]. destruct (fully_removable l rr h) as [[|]|] eqn:E.
  - exact (IH (fun rc0 l0 r0 x I => Hupd rc0 l0 r0 x (or_intror I)) _ t' (Hupd rc l rr h (or_introl eq_refl) Pt E) H).
  - exact (IH (fun rc0 l0 r0 x I => Hupd rc0 l0 r0 x (or_intror I)) _ t' Pt H).
  - exfalso. clear - H. induction r as [|x r IH]; simpl in H; [discriminate|auto].
Qed.

Lemma step3_fold_noop (upd : its -> molg -> molg -> N -> triple) hs : forall (t : triple),
  (forall h, In h hs -> fully_removable (snd (fst t)) (snd t) h = Some false) ->
  fold_left (fun (st : option triple) h =>
      match st with
      | None => None
      | Some (rc, l, r) => match fully_removable l r h with
                           | Some true => Some (upd rc l r h) | Some false => st | None => None end
      end) hs (Some t) = Some t.
Proof.
  induction hs as [|h r IH]; intros t H; [reflexivity|]. cbn [fold_left]. destruct t as [[rc l] rr]. cbn [fst snd] in H.
  rewrite (H h (or_introl eq_refl)). apply IH. intros x Ix. apply H. right. exact Ix.
Qed.

Lemma skel_step3_rc T0 hs : (forall h, In h hs -> is_H_i T0 h = true) ->
  forall (t t' : triple) removed, skel T0 (fst (fst t)) removed ->
  fold_left (fun (st : option triple) h =>
      match st with
      | None => None
      | Some (rc, l, r) => match fully_removable l r h with
                           | Some true => Some (strip_i rc h None, l, r) | Some false => st | None => None end
      end) hs (Some t) = Some t' ->
  exists removed', skel T0 (fst (fst t')) removed'.
Proof.
  intros Hall t t' removed S.
  apply (step3_fold_inv (fun t0 => exists removed', skel T0 (fst (fst t0)) removed') (fun rc l r h => (strip_i rc h None, l, r))); [|eauto].
  intros rc l r h I [removed0 S0] _. eexists. exact (skel_strip_i_exact T0 rc removed0 h None (fun _ => Hall h I) S0).
Qed.

Lemma step3_l_rc hs (t t' : triple) :
  fold_left (fun (st : option triple) h =>
      match st with
      | None => None
      | Some (rc, l, r) => match fully_removable l r h with
                           | Some true => Some (rc, strip_m l h None, r) | Some false => st | None => None end
      end) hs (Some t) = Some t' -> fst (fst t') = fst (fst t).
Proof. apply (step3_fold_inv (fun t0 => fst (fst t0) = fst (fst t)) (fun rc l r h => (rc, strip_m l h None, r))); auto. Qed.
Lemma step3_r_rc hs (t t' : triple) :
  fold_left (fun (st : option triple) h =>
      match st with
      | None => None
      | Some (rc, l, r) => match fully_removable l r h with
                           | Some true => Some (rc, l, strip_m r h None) | Some false => st | None => None end
      end) hs (Some t) = Some t' -> fst (fst t') = fst (fst t).
Proof. apply (step3_fold_inv (fun t0 => fst (fst t0) = fst (fst t)) (fun rc l r h => (rc, l, strip_m r h None))); auto. Qed.

(** * refresh_types only rewrites hydrogen counts *)
Lemma refresh_types_core rc l r rc' : refresh_types rc l r = Some rc' ->
  Forall2 same_core (gnodes rc') (gnodes rc) /\ gedges rc' = gedges rc.
Proof.
  unfold refresh_types.
  match goal with |- context [fold_right ?f _ _] => set (F := f) end.
  destruct (fold_right F (Some []) (gnodes rc)) as [ns|] eqn:E; [|discriminate]. intros H. inversion H; subst. cbn [gnodes gedges].
  split; [|reflexivity]. clear H. revert ns E. induction (gnodes rc) as [|[k a] r0 IH]; intros ns E.
  - simpl in E. inversion E. constructor.
  - cbn [fold_right] in E. destruct (fold_right F (Some []) r0) as [ns0|]; [|unfold F in E; discriminate].
    unfold F at 1 in E. cbn [fst snd] in E.
    destruct (label l k); [|discriminate]. destruct (label r k); [|discriminate]. inversion E; subst.
    constructor; [repeat split|apply IH; reflexivity].
Qed.

(** * the theorem *)
Theorem synrule_default_skeleton (tpl rc : its) (l r : molg) :
  nodupb (node_ids tpl) = true -> synrule tpl true = Some (rc, l, r) ->
  exists removed,
    (forall h, In h removed -> is_H_i tpl h = true) /\
    Forall2 same_core (gnodes rc) (filter (keepn removed) (gnodes tpl)) /\
    gedges rc = filter (keepe removed) (gedges tpl).
Proof.
  intros Hnd H. apply nodupb_NoDup in Hnd. destruct (synrule_default_inv tpl rc l r H) as (rc1 & Es & Er). clear H.
  set (rc0 := standardize_hydrogen tpl) in *. set (l0 := dec_side iG eG rc0) in *. set (r0 := dec_side iH eH rc0) in *.
  pose proof (skel_nil tpl) as S0.
  unfold strip_explicit_h in Es. cbn [fst snd] in Es.
  destruct (shared_h (init_m l0) (init_m r0)) as [hs|] eqn:Eh; [|discriminate].
  pose proof (shared_h_template tpl hs Hnd Eh) as HsH.
  unfold strip_shared in Es.
  destruct (skel_strip_shared tpl (sort_N hs) HsH (init_i rc0, init_m l0, init_m r0) 1%N [] S0) as (removed2 & S2).
  match type of Es with context [step3_rc ?x] => set (t2 := x) in * end.
  destruct (step3_rc t2) as [t3|] eqn:E3; [|discriminate].
  destruct (step3_l t3) as [t4|] eqn:E4; [|discriminate].
  unfold step3_rc in E3.
  assert (H3 : forall h, In h (h_nodes_i (fst (fst t2))) -> is_H_i tpl h = true).
  { intros h I. apply (skel_H_transfer tpl (fst (fst t2)) removed2 h Hnd S2).
    exact (h_nodes_i_H _ h (skel_nodup tpl _ removed2 Hnd S2) I). }
  destruct (skel_step3_rc tpl _ H3 t2 t3 removed2 S2 E3) as (removed3 & S3).
  pose proof (step3_l_rc _ _ _ E4) as R4. pose proof (step3_r_rc _ _ _ Es) as R5. cbn [fst] in R5.
  rewrite R4 in R5. rewrite <- R5 in S3.
  destruct (refresh_types_core _ _ _ _ Er) as [F1 F2]. destruct S3 as [K1 K2 K3].
  exists removed3. split; [exact K1|]. split.
  - eapply Forall2_trans'; [exact same_core_trans|exact F1|exact K2].
  - rewrite F2. exact K3.
Qed.

(** * default mode end to end, heavy-atom part of clause (c): the changed bonds of a reaction proposed with the rule
      prepared from [tpl] are the images of the template's changed bonds that touch no stripped hydrogen *)
Theorem default_changed_bonds tpl rc l r host m T :
  nodupb (node_ids tpl) = true -> synrule tpl true = Some (rc, l, r) ->
  wf_hostb host = true -> wf_rcb rc = true -> match_rcb host rc m = true -> glue host rc m = Some T ->
  exists removed,
    (forall h, In h removed -> is_H_i tpl h = true) /\
    Permutation (changed_bonds T) (flat_map (image_key m) (filter is_changed (filter (keepe removed) (gedges tpl)))).
Proof.
  intros Hnd Hs Hwh Hwr Hm Hg. destruct (synrule_default_skeleton tpl rc l r Hnd Hs) as (removed & H1 & _ & H3).
  exists removed. split; [exact H1|]. rewrite <- H3. exact (changed_bonds_perm host rc m T Hwh Hwr Hm Hg).
Qed.
