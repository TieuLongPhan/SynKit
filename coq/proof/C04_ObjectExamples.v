(** C04 — non-vacuity examples for the theorems about the reactor object (props/C04.v: C04_in_results_engine_partial,
    C04_reads_coherent, C04_stale_after_crash, C04_reverse_reaction, C04_canonical_codes_faithful). *)
From Coq Require Import List NArith ZArith Bool Arith Lia Permutation SetoidList.
From SK Require Import lib.Tok lib.LGraph lib.Mono model.C06_Model lib.C06_Spec proof.C06_Main proof.C06_All model.C11_Model.
From SK Require Import model.C03_Model model.C04_Model model.C04_Reactor proof.C03_Proof proof.C04_Object proof.C04_Chain proof.C04_Prune proof.C04_Examples.
Import ListNotations.
Local Open Scope Z_scope.

(** CH3I + NH3 (exG / exH of proof/C04_Examples.v), centre template, forwards; VF2 := C06's verified enumerator *)
Definition oe_host : hostg := substrate false exG exH.
Definition oe_tpl : its := template true false exG exH.
Definition oe_left : molg := dec_side iG C03_Model.eG oe_tpl.
Definition oe_rule : triple := (oe_tpl, oe_left, dec_side iH C03_Model.eH oe_tpl).
Definition oe_enum := monos_on (tr_host oe_host) (tr_pat (pattern_of oe_left)).
Definition oe_opts : ropts := own_opts false false (SMember 0%N) None false.
(** "C[I].N" / "C[N+].[I-]" stand for what RDKit writes *)
Definition oe_r : bytes := [67; 73; 46; 78]%N.
Definition oe_p : bytes := [67; 91; 78; 43; 93; 46; 91; 73; 45; 93]%N.
Definition oe_ser : nat -> its -> option bytes * option bytes := fun _ _ => (Some oe_r, Some oe_p).

(** every hypothesis of C04_in_results_engine_partial holds here ... *)
Example oe_hyps :
  pair_wfb exG exH = true /\ no_explicit_H exG = true /\ centre_carries (its_construct exG exH) = true /\
  forallb (fun p : N * mnode => 0 <=? m_hc (snd p)) (gnodes (pattern_of oe_left)) = true /\
  (lenN (oe_enum (node_ids (tr_host oe_host)) (node_ids (tr_pat (pattern_of oe_left)))) <= dflt DEFAULT_THRESHOLD None)%N.
Proof. vm_compute. repeat split; try reflexivity. intros E; discriminate E. Qed.
Example oe_contract :
  vf2_contract oe_enum (tr_host oe_host) (tr_pat (pattern_of oe_left)) (node_ids (tr_host oe_host)) (node_ids (tr_pat (pattern_of oe_left))).
Proof.
  apply monos_on_contract.
  - apply gwfb_spec. vm_compute. reflexivity.
  - apply nodupb_spec. vm_compute. reflexivity.
  - apply nodupb_spec. vm_compute. reflexivity.
Qed.
(** ... and the conclusion is what one computes: one mapping, one ITS that decomposes to the reaction, one reaction string *)
Example oe_run :
  fst (run_script (api_engine oe_enum) no_rematch oe_ser oe_opts oe_host oe_rule [ACount; ASmarts; ASmiles; ASmarts] fresh) =
  [VNum (Some 1%N); VStrs (Some [oe_r ++ arrow ++ oe_p]); VStrs (Some [oe_p]); VStrs (Some [oe_r ++ arrow ++ oe_p])] /\
  match fst (read_its (api_engine oe_enum) no_rematch oe_opts oe_host oe_rule fresh) with
  | Some [T] => regen_exact T exG exH
  | _ => false
  end = true.
Proof. vm_compute. split; reflexivity. Qed.
(** backwards the strings are turned round again *)
Definition oe_rule_b : triple :=
  (template true true exG exH, dec_side iG C03_Model.eG (template true true exG exH), dec_side iH C03_Model.eH (template true true exG exH)).
Example oe_run_backwards :
  fst (read_smarts (api_engine (monos_on (tr_host (substrate true exG exH)) (tr_pat (pattern_of (snd (fst oe_rule_b))))))
                   no_rematch (fun _ _ => (Some oe_p, Some oe_r)) (own_opts true false (SMember 0%N) None false)
                   (substrate true exG exH) oe_rule_b fresh) = Some [oe_r ++ arrow ++ oe_p].
Proof. vm_compute. reflexivity. Qed.

(** C04_reads_coherent: its hypothesis (no StopIteration) holds for this reactor *)
Example oe_no_crash : forall ms, compute_mappings (api_engine oe_enum) oe_opts oe_host oe_rule = Some ms ->
  crashed no_rematch oe_opts oe_host oe_rule ms = false.
Proof. intros ms E. vm_compute in E. inversion E; subst. vm_compute. reflexivity. Qed.

(** C04_stale_after_crash: a rule object prepared by hand (implicit_h = False) whose oxygen loses a hydrogen (pair id 1)
    with no partner to take it, applied in the default mode to CH3OH . CH3OH (harness: hand:crash-rule, the same values on
    the implementation): the first read of its_list raises, the second returns two ITS graphs, smarts_list works *)
Definition cr_tpl : its :=
  LG [(1%N, IN (NA 79%N false 1 0 []) (NA 79%N false 0 (-1) []) 1 (Some [1%N])); (2%N, IN (NA 67%N false 0 0 []) (NA 67%N false 0 0 []) 0 None)]
     [(1%N, 2%N, (2, 2, 0))].
Definition cr_host : hostg :=
  LG [(1%N, NA 67%N false 3 0 []); (2%N, NA 79%N false 1 0 []); (3%N, NA 67%N false 3 0 []); (4%N, NA 79%N false 1 0 [])]
     [(1%N, 2%N, 2); (3%N, 4%N, 2)].
Definition cr_rule : triple := match synrule cr_tpl false with Some r => r | None => (LG [] [], LG [] [], LG [] []) end.
Definition cr_opts : ropts := RO false true false (SMember 0%N) None false.
Definition cr_raw : list C03_Model.mapping := [[(1%N, 2%N); (2%N, 1%N)]; [(1%N, 4%N); (2%N, 3%N)]].
Example cr_hyps :
  post_init_ok cr_opts = true /\ synrule cr_tpl false = Some cr_rule /\
  compute_mappings (const_engine cr_raw) cr_opts cr_host cr_rule = Some cr_raw /\
  crashed no_rematch cr_opts cr_host cr_rule cr_raw = true /\
  length (its_stored no_rematch cr_opts cr_host cr_rule cr_raw) = 2%nat.
Proof. vm_compute. repeat split; reflexivity. Qed.
Example cr_reads :
  map (fun v => match v with VIts None => 0%nat | VIts (Some gs) => S (length gs) | _ => 99%nat end)
      (fst (run_script (const_engine cr_raw) no_rematch (fun _ _ => (None, None)) cr_opts cr_host cr_rule [AIts; AIts; AIts] fresh))
  = [0; 3; 3]%nat.
Proof. vm_compute. reflexivity. Qed.

(** C04_reverse_reaction *)
Example rr_example : reverse_reaction (oe_r ++ arrow ++ oe_p) = oe_p ++ arrow ++ oe_r /\ last_piece (oe_r ++ arrow ++ oe_p) = oe_p /\
  no_gt oe_r /\ no_gt oe_p /\ reverse_reaction oe_r = oe_r /\ split_gg (arrow ++ arrow) [] = [[]; []; []].
Proof.
  vm_compute. repeat split; try reflexivity;
    intros c I; repeat (destruct I as [<-|I]; [intros E; discriminate E|]); destruct I.
Qed.

(** C04_canonical_codes_faithful: on the symmetric rule of ethane dehydrogenation the canonical codes identify the two
    carbons, so the swap IS found as an automorphism and the pruning merges the two matches *)
Example canon_codes_example :
  map (fun p => cn_of (template true false sG sH) (snd p)) (gnodes (template true false sG sH)) = [0%N; 0%N] /\
  C11_Model.prune (fun m : C03_Model.mapping => m) (rule_graph (template true false sG sH)) s_raw = [[(1%N, 2%N); (2%N, 1%N)]].
Proof. vm_compute. split; reflexivity. Qed.

(** C04_identity_default_end / C04_explicit_h_keeps_reaction: bromoethane + water written with explicit centre hydrogens
    (dG / dH of proof/C04_Examples.v), centre and full ITS, forwards and backwards: the hypotheses hold (d_default_hyps),
    _explicit_h does not raise on the glued ITS, it adds one hydrogen atom, and the result decomposes to the reaction in
    implicit-hydrogen normal form *)
From SK Require Import proof.C04_DefaultProof.
Definition d_glued (core invert : bool) : option its :=
  match rule_of core invert dG dH with
  | Some (rc, l, _) => glue (substrate invert dG dH) rc (id_map (node_ids (pattern_of l)))
  | None => None
  end.
Example d_end_hyps :
  forallb (fun ci : bool * bool => match d_glued (fst ci) (snd ci) with
                                   | Some T => match explicit_h T with
                                               | Some (T', ms) => Nat.eqb (length ms) 1 && Nat.eqb (length (gnodes T')) (S (length (gnodes T)))
                                               | None => false end
                                   | None => false end)
          [(true, false); (false, false); (true, true); (false, true)] = true.
Proof. vm_compute. reflexivity. Qed.
Example d_end_regenerates :
  forallb (fun ci : bool * bool => match regenerate (fst ci) (snd ci) dG dH with
                                   | Some T' => regen_folded T' (if snd ci then dH else dG) (if snd ci then dG else dH)
                                                && negb (regen_exact T' (if snd ci then dH else dG) (if snd ci then dG else dH))
                                   | None => false end)
          [(true, false); (false, false); (true, true); (false, true)] = true.
Proof. vm_compute. reflexivity. Qed.

(** * strategies comp / bt lose an INTRAMOLECULAR reaction when a spectator molecule offers an intermolecular reading
    (witness of C04_comp_bt_refuted; harness: hand:intra-spectator, known findings *:centre:fwd:{comp,bt}:not-separating).
    5-bromopentan-1-ol cyclises; methanol is a spectator.  The centre pattern has two components (O ; C-Br), the substrate
    has two molecules; comp keeps only matches that put different pattern components into different molecules (C06's
    specification), so it returns the O of METHANOL with the C-Br of the bromo alcohol and not the identity; bt returns comp's
    non-empty answer. *)
Definition iG_ : hostg :=
  LG [(1%N, NA 79%N false 1 0 [67%N]); (2%N, NA 67%N false 2 0 [67%N; 79%N]); (3%N, NA 67%N false 2 0 [67%N; 67%N]);
      (4%N, NA 67%N false 2 0 [67%N; 67%N]); (5%N, NA 67%N false 2 0 [17010%N; 67%N]); (6%N, NA 17010%N false 0 0 [67%N]);
      (7%N, NA 67%N false 3 0 [79%N]); (8%N, NA 79%N false 1 0 [67%N])]
     [(1%N, 2%N, 2); (2%N, 3%N, 2); (3%N, 4%N, 2); (4%N, 5%N, 2); (5%N, 6%N, 2); (7%N, 8%N, 2)].
Definition iH_ : hostg :=
  LG [(1%N, NA 79%N false 0 0 [67%N; 67%N]); (2%N, NA 67%N false 2 0 [67%N; 79%N]); (3%N, NA 67%N false 2 0 [67%N; 67%N]);
      (4%N, NA 67%N false 2 0 [67%N; 67%N]); (5%N, NA 67%N false 2 0 [67%N; 79%N]); (6%N, NA 17010%N false 1 0 []);
      (7%N, NA 67%N false 3 0 [79%N]); (8%N, NA 79%N false 1 0 [67%N])]
     [(1%N, 2%N, 2); (1%N, 5%N, 2); (2%N, 3%N, 2); (3%N, 4%N, 2); (4%N, 5%N, 2); (7%N, 8%N, 2)].
Definition i_rule : triple := match rule_of true false iG_ iH_ with Some r => r | None => (LG [] [], LG [] [], LG [] []) end.
Definition i_host : hostg := substrate false iG_ iH_.
Definition i_pat : molg := pattern_of (snd (fst i_rule)).
Definition i_enum := monos_on (tr_host i_host) (tr_pat i_pat).
Definition s_comp_ : sarg := SStr [99; 111; 109; 112]%N.
Definition s_bt_ : sarg := SStr [98; 116]%N.
Definition i_regenerates (s : sarg) : bool :=
  match read_its (api_engine i_enum) no_rematch (own_opts false false s None false) i_host i_rule fresh with
  | (Some gs, _) => existsb (fun T => regen_folded T iG_ iH_) gs
  | _ => false
  end.
Example intra_spectator_witness :
  pair_wfb iG_ iH_ = true /\ no_explicit_H iG_ = true /\ consistent_H (its_construct iG_ iH_) = true /\
  centre_carries (its_construct iG_ iH_) = true /\ rule_of true false iG_ iH_ = Some i_rule /\
  match_okb i_host i_pat (id_map (node_ids i_pat)) = true /\
  (* where the oxygen (pattern atom 1) goes in the kept mappings: the own oxygen 1 or methanol's 8 *)
  option_map (map (fun m => mget m 1%N)) (compute_mappings (api_engine i_enum) (own_opts false false (SMember 0%N) None false) i_host i_rule)
    = Some [Some 1%N; Some 8%N] /\
  option_map (map (fun m => mget m 1%N)) (compute_mappings (api_engine i_enum) (own_opts false false s_comp_ None false) i_host i_rule) = Some [Some 8%N] /\
  option_map (map (fun m => mget m 1%N)) (compute_mappings (api_engine i_enum) (own_opts false false s_bt_ None false) i_host i_rule) = Some [Some 8%N] /\
  i_regenerates (SMember 0%N) = true /\ i_regenerates s_comp_ = false /\ i_regenerates s_bt_ = false.
Proof. vm_compute. repeat split; reflexivity. Qed.
Lemma comp_bt_refuted : exists (G H : hostg) (rule : triple),
  pair_wfb G H = true /\ no_explicit_H G = true /\ consistent_H (its_construct G H) = true /\
  centre_carries (its_construct G H) = true /\ rule_of true false G H = Some rule /\
  let host := substrate false G H in
  let pat := pattern_of (snd (fst rule)) in
  let enum := monos_on (tr_host host) (tr_pat pat) in
  let regenerates (s : sarg) :=
    match read_its (api_engine enum) no_rematch (own_opts false false s None false) host rule fresh with
    | (Some gs, _) => existsb (fun T => regen_folded T G H) gs
    | _ => false
    end in
  match_okb host pat (id_map (node_ids pat)) = true /\
  regenerates (SMember 0%N) = true /\ regenerates (SStr [99; 111; 109; 112]%N) = false /\ regenerates (SStr [98; 116]%N) = false.
Proof.
  exists iG_, iH_, i_rule. destruct intra_spectator_witness as (H1 & H2 & H3 & H4 & H5 & H6 & _ & _ & _ & H7 & H8 & H9).
  repeat split; assumption.
Qed.

(** C04_identity_match_default / C04_in_results_engine_default_partial: bromoethane + water with explicit centre hydrogens
    (dG / dH), all four template / direction combinations, VF2 := the verified enumerator: the boolean hypotheses hold,
    _explicit_h raises on no glued ITS, and the reactor's its_list contains an ITS that folds to the reaction *)
From SK Require Import proof.C04_DefaultChain.
Definition dc_ok (core invert : bool) : bool :=
  match rule_of core invert dG dH with
  | None => false
  | Some (rc, l, r) =>
      let host := substrate invert dG dH in
      let enum := monos_on (tr_host host) (tr_pat l) in
      let o := own_opts invert true (SMember 0%N) None false in
      forallb (fun p : N * mnode => 0 <=? m_hc (snd p)) (gnodes l)
      && negb (has_XH l) && match_okb host (pattern_of l) (id_map (node_ids (pattern_of l)))
      && (lenN (enum (node_ids (tr_host host)) (node_ids (tr_pat l))) <=? 5000)%N
      && C06_Model.gwfb (tr_pat l) && C06_Model.nodupb (node_ids (tr_host host))
      && match compute_mappings (api_engine enum) o host (rc, l, r) with
         | Some ms => negb (crashed no_rematch o host (rc, l, r) ms)
         | None => false end
      && match read_its (api_engine enum) no_rematch o host (rc, l, r) fresh with
         | (Some gs, _) => existsb (fun T' => regen_folded T' (if invert then dH else dG) (if invert then dG else dH)) gs
         | _ => false end
  end.
Example default_chain_example : forallb (fun ci : bool * bool => dc_ok (fst ci) (snd ci)) [(true, false); (false, false); (true, true); (false, true)] = true.
Proof. vm_compute. reflexivity. Qed.

(** C04_comp_regenerates_partial / C04_bt_regenerates_partial: the cyclisation of 5-bromopentan-1-ol WITHOUT the spectator
    (one molecule, centre pattern with two components: fewer substrate components than pattern components, comp is then
    exhaustive): the hypotheses hold, and comp / bt regenerate the reaction *)
From SK Require Import proof.C06_Main proof.C04_Glue proof.C04_Template proof.C04_Proof proof.C04_CompBt.
Definition rG_ : hostg :=
  LG [(1%N, NA 79%N false 1 0 [67%N]); (2%N, NA 67%N false 2 0 [67%N; 79%N]); (3%N, NA 67%N false 2 0 [67%N; 67%N]);
      (4%N, NA 67%N false 2 0 [67%N; 67%N]); (5%N, NA 67%N false 2 0 [17010%N; 67%N]); (6%N, NA 17010%N false 0 0 [67%N])]
     [(1%N, 2%N, 2); (2%N, 3%N, 2); (3%N, 4%N, 2); (4%N, 5%N, 2); (5%N, 6%N, 2)].
Definition rH_ : hostg :=
  LG [(1%N, NA 79%N false 0 0 [67%N; 67%N]); (2%N, NA 67%N false 2 0 [67%N; 79%N]); (3%N, NA 67%N false 2 0 [67%N; 67%N]);
      (4%N, NA 67%N false 2 0 [67%N; 67%N]); (5%N, NA 67%N false 2 0 [67%N; 79%N]); (6%N, NA 17010%N false 1 0 [])]
     [(1%N, 2%N, 2); (1%N, 5%N, 2); (2%N, 3%N, 2); (3%N, 4%N, 2); (4%N, 5%N, 2)].
Definition r_tpl : its := template true false rG_ rH_.
Definition r_l : molg := dec_side iG C03_Model.eG r_tpl.
Example comp_bt_hyps :
  pair_wf rG_ rH_ /\ describes rG_ rH_ r_tpl /\ left_of r_tpl r_l /\ has_XH r_l = false /\
  forallb (fun p : N * mnode => 0 <=? m_hc (snd p)) (gnodes r_l) = true /\
  gwf (tr_host rG_) /\ gwf (tr_pat r_l) /\ oracle_ok (monos_on (tr_host rG_) (tr_pat r_l)) (tr_host rG_) (tr_pat r_l) /\
  (0 <? length (comps (tr_pat r_l)))%nat && (length (comps (tr_pat r_l)) <? length (comps (tr_host rG_)))%nat = false /\
  (length (comps (tr_host rG_)) <? length (comps (tr_pat r_l)))%nat = true.
Proof.
  assert (W : pair_wfb rG_ rH_ = true) by (vm_compute; reflexivity).
  assert (NH : no_explicit_H rG_ = true) by (vm_compute; reflexivity).
  assert (CC : true = true -> centre_carries (its_construct rG_ rH_) = true) by (intros _; vm_compute; reflexivity).
  pose proof (template_describes true false rG_ rH_ W NH CC) as D. cbn [negb] in D. fold r_tpl in D.
  assert (GH : gwf (tr_host rG_)) by (apply gwfb_spec; vm_compute; reflexivity).
  assert (GP : gwf (tr_pat r_l)) by (apply gwfb_spec; vm_compute; reflexivity).
  split; [exact (proj1 (pair_wfb_sound rG_ rH_ W))|]. split; [exact D|].
  split; [exact (own_left_of r_tpl (d_wf _ _ _ D))|]. split; [vm_compute; reflexivity|]. split; [vm_compute; reflexivity|].
  split; [exact GH|]. split; [exact GP|]. split; [exact (monos_on_oracle_ok _ _ GH GP)|]. split; vm_compute; reflexivity.
Qed.
Example comp_bt_values :
  forallb (fun s : sarg =>
             match read_its (api_engine (monos_on (tr_host rG_) (tr_pat r_l))) no_rematch (own_opts false false s (Some 100%N) false)
                            rG_ (r_tpl, r_l, dec_side iH C03_Model.eH r_tpl) fresh with
             | (Some gs, _) => existsb (fun T => regen_exact T rG_ rH_) gs
             | _ => false end) [SMember 0%N; SMember 1%N; SMember 2%N] = true.
Proof. vm_compute. reflexivity. Qed.

(** C04_separating_boolean: the boolean is true on CH3I + NH3 (two pattern components C-I ; N in two molecules) and false on
    the refutation witness (O and C-Br of one molecule) *)
Example separating_values :
  id_separatingb (tr_host oe_host) (tr_pat (pattern_of oe_left)) = true /\ id_separatingb (tr_host i_host) (tr_pat i_pat) = false /\
  length (comps (tr_pat (pattern_of oe_left))) = 2%nat /\ length (comps (tr_host oe_host)) = 2%nat /\
  length (comps (tr_pat i_pat)) = 2%nat /\ length (comps (tr_host i_host)) = 2%nat.
Proof. vm_compute. repeat split; reflexivity. Qed.

(** C04_own_comp_default / C04_own_bt_default (and the implicit twins: comp_bt_hyps above): on bromoethane + water written with
    explicit centre hydrogens the premises hold for the centre and the full ITS, forwards; the identity separates *)
Definition dcb_ok (core : bool) : bool :=
  match rule_of core false dG dH with
  | None => false
  | Some (rc, l, r) =>
      let Hh := tr_host (substrate false dG dH) in let Pp := tr_pat l in
      forallb (fun p : N * mnode => 0 <=? m_hc (snd p)) (gnodes l) && C06_Model.gwfb Hh && C06_Model.gwfb Pp
      && negb ((0 <? length (comps Pp))%nat && (length (comps Pp) <? length (comps Hh))%nat)
      && id_separatingb Hh Pp
  end.
Example own_default_comp_bt_hyps : dcb_ok true = true /\ dcb_ok false = true.
Proof. vm_compute. split; reflexivity. Qed.

(** * strategy comp in the strict_cc_count guard region (witness of C04_comp_guard_refuted; harness: hand:spectator-water, known
    findings *:comp:guard): CH3Br + OH- -> CH3OH + Br- next to a spectator water.  The centre pattern has two components (C-Br ; O),
    the substrate three molecules: comp returns no match at all, so its_list is empty; all and bt regenerate. *)
Definition gG_ : hostg :=
  LG [(1%N, NA 67%N false 3 0 [17010%N]); (2%N, NA 17010%N false 0 0 [67%N]); (3%N, NA 79%N false 1 (-1) []); (4%N, NA 79%N false 2 0 [])]
     [(1%N, 2%N, 2)].
Definition gH_ : hostg :=
  LG [(1%N, NA 67%N false 3 0 [79%N]); (3%N, NA 79%N false 1 0 [67%N]); (2%N, NA 17010%N false 0 (-1) []); (4%N, NA 79%N false 2 0 [])]
     [(1%N, 3%N, 2)].
Definition g_rule : triple := match rule_of true false gG_ gH_ with Some r => r | None => (LG [] [], LG [] [], LG [] []) end.
Definition g_host : hostg := substrate false gG_ gH_.
Definition g_pat : molg := pattern_of (snd (fst g_rule)).
Definition g_its (s : sarg) : option (list its) :=
  fst (read_its (api_engine (monos_on (tr_host g_host) (tr_pat g_pat))) no_rematch (own_opts false false s None false) g_host g_rule fresh).
Lemma comp_guard_refuted : exists (G H : hostg) (rule : triple),
  pair_wfb G H = true /\ no_explicit_H G = true /\ consistent_H (its_construct G H) = true /\
  centre_carries (its_construct G H) = true /\ rule_of true false G H = Some rule /\
  let host := substrate false G H in
  let pat := pattern_of (snd (fst rule)) in
  let enum := monos_on (tr_host host) (tr_pat pat) in
  let its_under (s : sarg) := fst (read_its (api_engine enum) no_rematch (own_opts false false s None false) host rule fresh) in
  match_okb host pat (id_map (node_ids pat)) = true /\
  (length (comps (tr_pat pat)) < length (comps (tr_host host)))%nat /\
  its_under (SStr [99; 111; 109; 112]%N) = Some [] /\
  (exists T, its_under (SMember 0%N) = Some [T] /\ regen_exact T G H = true) /\
  (exists T, its_under (SStr [98; 116]%N) = Some [T] /\ regen_exact T G H = true).
Proof.
  exists gG_, gH_, g_rule.
  assert (E0 : exists T, g_its (SMember 0%N) = Some [T] /\ regen_exact T gG_ gH_ = true).
  { destruct (g_its (SMember 0%N)) as [[|T [|]]|] eqn:E; try (vm_compute in E; discriminate E).
    exists T. split; [reflexivity|]. assert (E' : Some [T] = g_its (SMember 0%N)) by (symmetry; exact E).
    vm_compute in E'. inversion E'; subst T. vm_compute. reflexivity. }
  assert (E2 : exists T, g_its (SStr [98; 116]%N) = Some [T] /\ regen_exact T gG_ gH_ = true).
  { destruct (g_its (SStr [98; 116]%N)) as [[|T [|]]|] eqn:E; try (vm_compute in E; discriminate E).
    exists T. split; [reflexivity|]. assert (E' : Some [T] = g_its (SStr [98; 116]%N)) by (symmetry; exact E).
    vm_compute in E'. inversion E'; subst T. vm_compute. reflexivity. }
  split; [vm_compute; reflexivity|]. split; [vm_compute; reflexivity|]. split; [vm_compute; reflexivity|].
  split; [vm_compute; reflexivity|]. split; [vm_compute; reflexivity|]. cbv zeta.
  split; [vm_compute; reflexivity|]. split; [vm_compute; lia|]. split; [vm_compute; reflexivity|].
  split; [exact E0|exact E2].
Qed.
