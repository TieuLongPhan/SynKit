(** C02 — a ball around the centre carries the centre, and contexts nest, on ITS graphs of every label shape
    (theorems 25 and 26 beyond [its]): instances of [rcg_of_ball] (proof/C02_Generic.v) and [ball_of_ball]
    (proof/C02_Ball.v); on scalar labels [get_rc_S] is [get_rc_x]. *)
From Coq Require Import List NArith ZArith Bool Lia.
From SK Require Import lib.LGraph lib.C01_GraphLemmas model.C01_Model model.C02_Model proof.C02_Proof proof.C02_Opts
                       proof.C02_Store proof.C02_StoreCtx model.C02_Store proof.C02_Ball.
Import ListNotations.
Local Open Scope Z_scope.

(** * [gmapn] commutes with balls *)
Lemma knn_g_gmapn {A A' B} (h : A -> A') (g : lgraph A B) S k : knn_g (gmapn h g) S k = knn_g g S k.
Proof. reflexivity. Qed.

Lemma induced_gmapn {A A' B} (h : A -> A') (g : lgraph A B) L : gmapn h (induced_sub g L) = induced_sub (gmapn h g) L.
Proof.
  unfold induced_sub, gmapn. simpl. f_equal.
  induction (gnodes g) as [|[n a] r IH]; simpl; [reflexivity|]. destruct (LGraph.mem n L); simpl; rewrite IH; reflexivity.
Qed.

Lemma ball_sub_gmapn {A A' B} (h : A -> A') (g : lgraph A B) S k : gmapn h (ball_sub g S k) = ball_sub (gmapn h g) S k.
Proof. unfold ball_sub. rewrite knn_g_gmapn. apply induced_gmapn. Qed.

Theorem rcS_of_ball K m (g : sits) (S : list N) (k : nat) : wf g ->
  (forall n, In n (node_ids (get_rc_S K false m g)) -> In n S) ->
  geq (get_rc_S K false m (ball_sub g S k)) (get_rc_S K false m g).
Proof. intros W. exact (rcg_of_ball (selS K) (selS_hh K) ish_S cc_S m g W S k). Qed.

(** theorem 25 for every label shape: a context carries its centre *)
Theorem rcS_of_context (g : sits) k : wf g -> (1 <= k)%nat ->
  geq (get_rc_S K_default false false (extract_k_S g k)) (get_rc_S K_default false false g).
Proof.
  intros W Hk. destruct k as [|k]; [lia|].
  change (extract_k_S g (Datatypes.S k)) with (ball_sub g (node_ids (get_rc_S K_default false false g)) (Datatypes.S k)).
  apply rcS_of_ball; [exact W|auto].
Qed.

(** * theorem 26 for every label shape: contexts nest *)
Theorem ctxS_of_ctx (g : sits) : wf g -> forall k k', (1 <= k)%nat -> (k <= k')%nat ->
  geq (extract_k_S (extract_k_S g k') k) (extract_k_S g k).
Proof.
  intros W k k' Hk Hkk. destruct k as [|k]; [lia|]. destruct k' as [|k']; [lia|].
  change (geq (ball_sub (extract_k_S g (S k')) (node_ids (get_rc_S K_default false false (extract_k_S g (S k')))) (S k))
              (ball_sub g (node_ids (get_rc_S K_default false false g)) (S k))).
  apply ball_of_ball; [exact W| |apply geq_node_ids, rcS_of_context; [exact W|lia]|exact Hkk].
  intros s. apply rcS_nodes_in. exact (proj1 W).
Qed.

Example C02_storenest_nonvacuous :
  wf (emb_S ctxS_ex) /\
  geq (get_rc_S K_default false false (extract_k_S (emb_S ctxS_ex) 1)) (get_rc_S K_default false false (emb_S ctxS_ex)) /\
  geq (extract_k_S (extract_k_S (emb_S ctxS_ex) 2) 1) (extract_k_S (emb_S ctxS_ex) 1) /\
  length (gnodes (extract_k_S (emb_S ctxS_ex) 2)) = 6%nat /\ length (gnodes (extract_k_S (emb_S ctxS_ex) 1)) = 5%nat.
Proof.
  pose proof (proj1 C02_ctxS_nonvacuous) as Wx. split; [exact Wx|]. split; [apply rcS_of_context; [exact Wx|lia]|].
  split; [apply ctxS_of_ctx; [exact Wx|lia|lia]|]. split; vm_compute; reflexivity.
Qed.

(** * the two models agree where they overlap: on graphs all of whose labels are scalars, get_rc_S IS get_rc_x
    ([sn_of_x] commutes with the selections and keeps both tests) *)
Theorem rcS_scalar K d m (g : xits) : wf g ->
  get_rc_S K d m (gmapn sn_of_x g) = gmapn sn_of_x (get_rc_x K d m g).
Proof.
  intros _. symmetry. apply (get_rc_g_map (sel_attr K) (sel_attr_hh K) ish_x charge_changed (selS K) (selS_hh K) ish_S cc_S sn_of_x).
  - intros a. unfold sn_of_x, selS, sel_attr. simpl. rewrite !pick_map. reflexivity.
  - intros a. unfold sn_of_x, selS_hh, sel_attr_hh. simpl. rewrite !pick_map. reflexivity.
  - intros a. unfold ish_S, ish_x, sn_of_x. simpl. destruct (x_el a); reflexivity.
  - reflexivity.
Qed.

Example C02_rcS_scalar_nonvacuous :
  wf (emb ex_its) /\ gnodes (get_rc_x K_default true true (emb ex_its)) <> [] /\
  get_rc_S K_default true true (gmapn sn_of_x (emb ex_its)) = gmapn sn_of_x (get_rc_x K_default true true (emb ex_its)).
Proof.
  assert (wf (emb ex_its)) as Wx by (apply (wf_gmap xn_of (fun e : iedge => (e, @None bool))); exact ex_its_wf).
  split; [exact Wx|]. split; [vm_compute; discriminate|apply rcS_scalar; exact Wx].
Qed.
