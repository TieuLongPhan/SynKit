(** C18 — the two exact tools under one node selection: the canonicaliser (node_attr_keys = nk without 'label', default edge keys)
    never reports fewer automorphisms than the VF2 tool's enumerator under the same selection. *)
From Coq Require Import List NArith ZArith Bool Arith Lia Permutation.
From SK Require Import lib.IRSortKeys lib.IRCore lib.IRSearch lib.C18_IRValid model.C18_Model model.C18_AttrModel model.C18_SpAttrModel
  model.C18_AutAttrModel proof.C18_Order proof.C18_Spec proof.C18_Graph proof.C18_Canon proof.C18_Count proof.C18_Vf2 proof.C18_WL
  proof.C18_OrbCanon proof.C18_Attr proof.C18_SpAttr proof.C18_AutAttr proof.C18_AttrEquiv proof.C18_WLBound.
From SK Require lib.IRInst.
Import ListNotations.

Lemma nval_by_key g t v w s : s <> NLabel -> fst (nval g t v s) = fst (nval g t w s) -> nval g t v s = nval g t w s.
Proof.
  destruct s; simpl; intros Hs E; try congruence.
  destruct (Z.eqb (kind_of g v) KSPECIES), (Z.eqb (kind_of g w) KSPECIES); simpl in *; congruence.
Qed.
Lemma is_autA_is_autG g t nk s : Forall (fun x => x <> NLabel) nk ->
  is_autA g t nk [ERole; EStoich] s -> is_autG g (nvA g t nk) (evA [ERole; EStoich]) s.
Proof.
  intros Hnk (H1 & H2 & H3 & H4). repeat split; auto.
  - intros v Hv. specialize (H3 v Hv). unfold nvA. unfold nkey in H3. revert H3. clear - Hnk.
    induction nk as [|x nk IH]; simpl; intros E; auto. inversion Hnk; subst. inversion E. f_equal; auto. apply nval_by_key; auto.
  - intros u v Hu Hv. specialize (H4 u v Hu Hv).
    destruct (find_arc g (s u) (s v)) as [[a1 a2]|], (find_arc g u v) as [[b1 b2]|]; simpl in *; try discriminate; auto.
    inversion H4. reflexivity.
Qed.

Theorem canon_count_ge_vf2 g t nk : wf g -> Forall (fun x => x <> NLabel) nk ->
  length (autsA g t nk) <= length (snd (canon_searchA g t nk [ERole; EStoich])).
Proof.
  intros Hw Hnk.
  destruct (canon_isoA g t nk [ERole; EStoich] Hw) as [Hsome Hiso].
  destruct (fst (canon_searchA g t nk [ERole; EStoich])) as [[lab p]|] eqn:Eb; [|congruence].
  destruct (autsA_spec g t nk Hw) as (Hnd & _ & Hall).
  set (F := fun s : N -> N => rev (combine (aut_order (recode g t nk)) (map s (aut_order (recode g t nk))))).
  assert (Hp : In p (snd (canon_searchA g t nk [ERole; EStoich]))).
  { revert Eb. rewrite canon_searchA_G, canon_searchG_fold. intros Eb.
    destruct (visit_best_first _ _ _ _ _ Eb) as (rest & ->). left. reflexivity. }
  apply (inj_rel_length (fun m q => exists s, is_autA g t nk [ERole; EStoich] s /\ m = F s /\ q = map s p)); auto.
  - intros m Hm. destruct (Hall m Hm) as (s & Hs & E). exists (map s p). split; [|exists s; auto].
    apply (attr_count_lower_partial g t nk [ERole; EStoich] s p Hw); auto. apply is_autA_is_autG; auto.
  - intros m m' q _ _ (s & Hs & -> & ->) (s' & Hs' & -> & E).
    assert (Hag : forall v, In v (node_ids g) -> s v = s' v).
    { rewrite canon_searchA_G in Hp. apply (autG_determined g (nvA g t nk) (evA [ERole; EStoich]) (length nk) 2 Hw s s' p Hp E). }
    unfold F. f_equal. f_equal. apply map_ext_in. intros v Hv. apply Hag.
    pose proof (aut_order_perm (recode g t nk) (proj1 (wf_recode g t nk Hw))) as Hord. rewrite node_ids_recode in Hord.
    apply (Permutation_in _ Hord Hv).
Qed.
