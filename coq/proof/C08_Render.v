(** C08 — the string renderings of the model are injective: serialisation items, the serialisation itself,
    nauty node strings / edge bits / labels.  Parsing by separators (lib/StrJoin.v). *)
From Coq Require Import String Ascii List NArith ZArith Bool Arith Lia Permutation DecimalN.
From SK Require Import lib.LGraph lib.StrJoin model.C08_Model proof.C08_Spec proof.C08_Sort proof.C08_SigFun.
Import ListNotations.
Open Scope list_scope.

(* ---------------- separators ---------------- *)
Lemma app_sep_inj sep (x x' r r' : str) : nosep sep x -> nosep sep x' -> x ++ sep :: r = x' ++ sep :: r' -> x = x' /\ r = r'.
Proof.
  intros H H' E. pose proof (f_equal (split1 sep) E) as E'.
  rewrite (split1_app _ H), (split1_app _ H') in E'. inversion E'. auto.
Qed.
Lemma nosep_nil sep : nosep sep [].
Proof. intros []. Qed.
Lemma nosep_cons sep c x : c <> sep -> nosep sep x -> nosep sep (c :: x).
Proof. intros H1 H2 [E|I]; [congruence|auto]. Qed.
Lemma nosep_app sep x y : nosep sep x -> nosep sep y -> nosep sep (x ++ y).
Proof. intros H1 H2 I. apply in_app_or in I. destruct I; auto. Qed.
Lemma cls_nosep (P : N -> bool) sep x : forallb P x = true -> P sep = false -> nosep sep x.
Proof. intros H Hs I. rewrite forallb_forall in H. rewrite (H _ I) in Hs. discriminate. Qed.

Lemma join_nosep sep c xs : c <> sep -> Forall (nosep c) xs -> nosep c (join sep xs).
Proof.
  intros Hc. induction 1 as [|x xs Hx Hxs IH]; [apply nosep_nil|].
  destruct xs as [|x2 xs]; [exact Hx|].
  change (join sep (x :: x2 :: xs)) with (x ++ sep :: join sep (x2 :: xs)).
  apply nosep_app; auto. apply nosep_cons; auto.
Qed.

(* join is injective on lists of non-empty separator-free strings (empty lists allowed) *)
Lemma join_nonempty sep xs : xs <> [] -> Forall (fun x => x <> []) xs -> join sep xs <> [].
Proof.
  intros Hn Hx. destruct xs as [|x xs]; [congruence|]. inversion Hx; subst.
  destruct xs as [|x2 xs]; [exact H1|].
  change (join sep (x :: x2 :: xs)) with (x ++ sep :: join sep (x2 :: xs)).
  destruct x; [congruence|discriminate].
Qed.
Lemma join_inj0 sep xs ys : Forall (nosep sep) xs -> Forall (nosep sep) ys ->
  Forall (fun x => x <> []) xs -> Forall (fun x => x <> []) ys -> join sep xs = join sep ys -> xs = ys.
Proof.
  intros Hx Hy Nx Ny E. destruct xs as [|x xs], ys as [|y ys]; auto.
  - exfalso. symmetry in E. revert E. apply join_nonempty; auto; discriminate.
  - exfalso. revert E. apply join_nonempty; auto; discriminate.
  - apply (join_inj Hx Hy); auto; discriminate.
Qed.

(* a joined list of known length followed by the separator *)
Lemma join_prefix_inj sep : forall xs ys r r', length xs = length ys -> xs <> [] ->
  Forall (nosep sep) xs -> Forall (nosep sep) ys ->
  join sep xs ++ sep :: r = join sep ys ++ sep :: r' -> xs = ys /\ r = r'.
Proof.
  induction xs as [|x xs IH]; intros ys r r' Hl Hn Hx Hy E; [congruence|].
  destruct ys as [|y ys]; [discriminate|].
  inversion Hx as [|? ? Hx1 Hx2]; subst. inversion Hy as [|? ? Hy1 Hy2]; subst.
  destruct xs as [|x2 xs], ys as [|y2 ys]; try discriminate.
  - simpl in E. destruct (app_sep_inj _ _ _ _ _ Hx1 Hy1 E) as [-> ->]. auto.
  - change (join sep (x :: x2 :: xs)) with (x ++ sep :: join sep (x2 :: xs)) in E.
    change (join sep (y :: y2 :: ys)) with (y ++ sep :: join sep (y2 :: ys)) in E.
    rewrite <- !app_assoc in E. cbn [app] in E.
    destruct (app_sep_inj _ _ _ _ _ Hx1 Hy1 E) as [-> E2].
    assert (Hl' : length (x2 :: xs) = length (y2 :: ys)) by (simpl in Hl |- *; lia).
    assert (Hn' : x2 :: xs <> []) by discriminate.
    destruct (IH (y2 :: ys) r r' Hl' Hn' Hx2 Hy2 E2) as [E3 E4].
    rewrite E3. auto.
Qed.

(* ---------------- character classes ---------------- *)
Definition isdig (c : N) : bool := ((48 <=? c) && (c <=? 57))%N.
Definition isnum (c : N) : bool := isdig c || (c =? 45)%N || (c =? 46)%N.
Definition isalpha (c : N) : bool := ((65 <=? c) && (c <=? 90) || (97 <=? c) && (c <=? 122))%N.

Lemma digits_dig d : forallb isdig (digits_uint d) = true.
Proof. induction d; simpl; auto. Qed.
Lemma decN_dig n : forallb isdig (decN n) = true.
Proof. apply digits_dig. Qed.
Lemma forallb_weaken (P Q : N -> bool) x : (forall c, P c = true -> Q c = true) -> forallb P x = true -> forallb Q x = true.
Proof. intros H. rewrite !forallb_forall. auto. Qed.
Lemma dig_num c : isdig c = true -> isnum c = true.
Proof. unfold isnum. intros ->. reflexivity. Qed.
Lemma decN_num n : forallb isnum (decN n) = true.
Proof. eapply forallb_weaken; [apply dig_num|apply decN_dig]. Qed.
Lemma decZ_num z : forallb isnum (decZ z) = true.
Proof. unfold decZ. destruct (z <? 0)%Z; simpl; apply decN_num. Qed.
Lemma fl_num h : forallb isnum (fl h) = true.
Proof.
  unfold fl. cbv zeta. rewrite !forallb_app. rewrite decN_num.
  destruct (h <? 0)%Z, (N.eqb _ 0); reflexivity.
Qed.
Lemma pybool_alpha b : forallb isalpha (pybool b) = true.
Proof. destruct b; reflexivity. Qed.

Ltac nosep :=
  repeat first
    [ apply nosep_nil
    | assumption
    | apply nosep_cons; [discriminate|]
    | (eapply cls_nosep; [apply decN_dig|reflexivity])
    | (eapply cls_nosep; [apply decZ_num|reflexivity])
    | (eapply cls_nosep; [apply fl_num|reflexivity])
    | (eapply cls_nosep; [apply pybool_alpha|reflexivity])
    | apply nosep_app
    | (eapply cls_nosep; [eassumption|reflexivity]) ].

(* ---------------- numbers ---------------- *)
Lemma digits_uint_inj a : forall b, digits_uint a = digits_uint b -> a = b.
Proof. induction a; destruct b; simpl; intros E; try discriminate; auto; inversion E; f_equal; auto. Qed.
Lemma decN_inj a b : decN a = decN b -> a = b.
Proof.
  unfold decN. intros E. apply digits_uint_inj in E.
  rewrite <- (Unsigned.of_to a), <- (Unsigned.of_to b), E. reflexivity.
Qed.
Lemma decN_not_minus n r : decN n <> 45%N :: r.
Proof.
  intros E. pose proof (decN_dig n) as H. rewrite E in H. simpl in H. discriminate.
Qed.
Lemma decZ_inj a b : decZ a = decZ b -> a = b.
Proof.
  unfold decZ. destruct (Z.ltb_spec a 0), (Z.ltb_spec b 0); intros E.
  - inversion E as [E']. apply decN_inj in E'. lia.
  - symmetry in E. apply decN_not_minus in E. contradiction.
  - apply decN_not_minus in E. contradiction.
  - apply decN_inj in E. lia.
Qed.

Lemma fl_form h : fl h = (if (h <? 0)%Z then [45%N] else []) ++ decN (N.div (Z.abs_N h) 2) ++ 46%N ::
                         [if N.eqb (N.modulo (Z.abs_N h) 2) 0 then 48%N else 53%N].
Proof. unfold fl. cbv zeta. destruct (N.eqb _ 0); reflexivity. Qed.
Lemma fl_inj a b : fl a = fl b -> a = b.
Proof.
  rewrite !fl_form. intros E.
  assert (Hs : (a <? 0)%Z = (b <? 0)%Z).
  { destruct (a <? 0)%Z, (b <? 0)%Z; auto; simpl in E.
    - destruct (decN (Z.abs_N b / 2)) as [|c r] eqn:Eb; simpl in E; [discriminate|].
      inversion E; subst. exfalso. apply (decN_not_minus _ _ Eb).
    - destruct (decN (Z.abs_N a / 2)) as [|c r] eqn:Ea; simpl in E; [discriminate|].
      inversion E; subst. exfalso. apply (decN_not_minus _ _ Ea). }
  rewrite Hs in E. apply app_inv_head in E.
  apply app_sep_inj in E; [|nosep|nosep]. destruct E as [E1 E2]. apply decN_inj in E1.
  assert (Em : N.modulo (Z.abs_N a) 2 = N.modulo (Z.abs_N b) 2).
  { assert (Ha : (Z.abs_N a mod 2 < 2)%N) by (apply N.mod_upper_bound; discriminate).
    assert (Hb : (Z.abs_N b mod 2 < 2)%N) by (apply N.mod_upper_bound; discriminate).
    revert E2 Ha Hb. generalize (Z.abs_N a mod 2)%N (Z.abs_N b mod 2)%N. intros x y E2 Ha Hb.
    destruct (N.eqb_spec x 0), (N.eqb_spec y 0); try discriminate; lia. }
  assert (Eabs : Z.abs_N a = Z.abs_N b).
  { rewrite (N.div_mod (Z.abs_N a) 2), (N.div_mod (Z.abs_N b) 2) by lia. rewrite E1, Em. reflexivity. }
  destruct (Z.ltb_spec a 0), (Z.ltb_spec b 0); try discriminate; lia.
Qed.
Lemma fl_has_dot h : In 46%N (fl h).
Proof. rewrite fl_form. apply in_or_app. right. apply in_or_app. right. left. reflexivity. Qed.
Lemma fl_not_nil h : fl h <> [].
Proof. intro E. pose proof (fl_has_dot h) as I. rewrite E in I. contradiction. Qed.
Lemma fl_not_zero h : fl h <> [48%N].
Proof. intro E. pose proof (fl_has_dot h) as I. rewrite E in I. destruct I as [I|[]]. discriminate. Qed.
Lemma pybool_inj a b : pybool a = pybool b -> a = b.
Proof. destruct a, b; auto; discriminate. Qed.

(* ---------------- the order value: a float or a tuple of two floats ---------------- *)
Lemma OS_form o t : OS o t = match t with None => fl o | Some b => 40%N :: fl o ++ 44%N :: 32%N :: fl b ++ [41%N] end.
Proof.
  destruct t as [b|]; [|reflexivity]. unfold OS, sep2.
  change (lit "(") with [40%N]. change (lit ", ") with [44%N; 32%N]. change (lit ")") with [41%N].
  cbn [app]. rewrite <- ?app_assoc. reflexivity.
Qed.
Lemma fl_head_num h c r : fl h = c :: r -> isnum c = true.
Proof. intros E. pose proof (fl_num h) as H. rewrite E in H. simpl in H. apply andb_prop in H. tauto. Qed.
Lemma fl_not_paren h r : fl h <> 40%N :: r.
Proof. intros E. apply fl_head_num in E. discriminate. Qed.
(* the order value followed by a comma *)
Lemma OS_comma_inj o t o' t' r r' : OS o t ++ 44%N :: r = OS o' t' ++ 44%N :: r' -> o = o' /\ t = t' /\ r = r'.
Proof.
  rewrite !OS_form. destruct t as [b|], t' as [b'|]; intros E.
  - cbn [app] in E. inversion E as [E1]. clear E. rewrite <- !app_assoc in E1. cbn [app] in E1.
    apply app_sep_inj in E1; [|nosep|nosep]. destruct E1 as [E1 E2]. apply fl_inj in E1.
    inversion E2 as [E3]. clear E2. rewrite <- !app_assoc in E3. cbn [app] in E3.
    apply app_sep_inj in E3; [|nosep|nosep]. destruct E3 as [E3 E4]. apply fl_inj in E3. inversion E4. subst. auto.
  - exfalso. cbn [app] in E. destruct (fl o') as [|c r0] eqn:Ef; [apply (fl_not_nil _ Ef)|].
    cbn [app] in E. inversion E; subst. apply fl_head_num in Ef. discriminate.
  - exfalso. cbn [app] in E. destruct (fl o) as [|c r0] eqn:Ef; [apply (fl_not_nil _ Ef)|].
    cbn [app] in E. inversion E; subst. apply fl_head_num in Ef. discriminate.
  - apply app_sep_inj in E; [|nosep|nosep]. destruct E as [E1 E2]. apply fl_inj in E1. subst. auto.
Qed.
Lemma OS_inj o t o' t' : OS o t = OS o' t' -> o = o' /\ t = t'.
Proof.
  intros E. assert (E' : OS o t ++ 44%N :: [] = OS o' t' ++ 44%N :: []) by (rewrite E; reflexivity).
  apply OS_comma_inj in E'. tauto.
Qed.
Lemma OS_nosep o t sep : sep = 58%N \/ sep = 59%N \/ sep = 124%N -> nosep sep (OS o t).
Proof. intros H. rewrite OS_form. destruct t; destruct H as [->|[->| ->]]; nosep. Qed.
Lemma OS_not_nil o t : OS o t <> [].
Proof. rewrite OS_form. destruct t; [discriminate|apply fl_not_nil]. Qed.

(* ---------------- serialisation items ---------------- *)
Lemma NI_form n e c a h : NI (n, (e, c, a, h)) =
  decN n ++ 58%N :: 40%N :: 39%N :: e ++ 39%N :: 44%N :: 32%N :: decZ c ++ 44%N :: 32%N :: pybool a ++ 44%N :: 32%N :: decZ h ++ [41%N].
Proof.
  unfold NI, pyrepr, sep2.
  change (lit ":") with [58%N]. change (lit "(") with [40%N]. change (lit ", ") with [44%N; 32%N]. change (lit ")") with [41%N].
  rewrite <- !app_assoc. reflexivity.
Qed.

Lemma NI_inj c1 c2 : el_ok (fst (fst (fst (snd c1)))) -> el_ok (fst (fst (fst (snd c2)))) -> NI c1 = NI c2 -> c1 = c2.
Proof.
  destruct c1 as [n [[[e c] a] h]], c2 as [n' [[[e' c'] a'] h']]. cbn [fst snd]. unfold el_ok. intros He He' E.
  rewrite !NI_form in E.
  apply app_sep_inj in E; [|nosep|nosep]. destruct E as [E1 E]. apply decN_inj in E1.
  inversion E as [E2]. clear E.
  apply app_sep_inj in E2; [|nosep|nosep]. destruct E2 as [E2 E]. inversion E as [E3]. clear E.
  apply app_sep_inj in E3; [|nosep|nosep]. destruct E3 as [E3 E]. apply decZ_inj in E3. inversion E as [E4]. clear E.
  apply app_sep_inj in E4; [|nosep|nosep]. destruct E4 as [E4 E]. apply pybool_inj in E4. inversion E as [E5]. clear E.
  apply app_inj_tail in E5. destruct E5 as [E5 _]. apply decZ_inj in E5. subst. reflexivity.
Qed.

Lemma EI_form u v o t s : EI (u, v, (o, t, s)) =
  40%N :: decN u ++ 44%N :: 32%N :: decN v ++ 41%N :: 58%N :: 40%N :: 40%N :: decN u ++ 44%N :: 32%N :: decN v ++ 41%N :: 44%N :: 32%N ::
  OS o t ++ 44%N :: 32%N :: (match s with Some s => fl s | None => [48%N] end) ++ [41%N].
Proof.
  unfold EI, sep2. cbv zeta.
  change (lit ":") with [58%N]. change (lit "(") with [40%N]. change (lit ", ") with [44%N; 32%N]. change (lit ")") with [41%N].
  change (lit "0") with [48%N].
  rewrite <- ?app_assoc. cbn [app]. rewrite <- ?app_assoc. reflexivity.
Qed.

Lemma EI_inj c1 c2 : EI c1 = EI c2 -> c1 = c2.
Proof.
  destruct c1 as [[u v] [[o t] s]], c2 as [[u' v'] [[o' t'] s']]. intros E. rewrite !EI_form in E.
  inversion E as [E1]. clear E.
  apply app_sep_inj in E1; [|nosep|nosep]. destruct E1 as [E1 E]. apply decN_inj in E1. inversion E as [E2]. clear E.
  apply app_sep_inj in E2; [|nosep|nosep]. destruct E2 as [E2 E]. apply decN_inj in E2. subst u' v'.
  inversion E as [E3]. clear E.
  apply app_inv_head in E3. inversion E3 as [E4]. clear E3.
  apply app_inv_head in E4. inversion E4 as [E5]. clear E4.
  apply OS_comma_inj in E5. destruct E5 as (-> & -> & E).
  inversion E as [E6]. clear E. apply app_inj_tail in E6. destruct E6 as [E6 _].
  destruct s as [s|], s' as [s'|].
  - apply fl_inj in E6. subst. reflexivity.
  - exfalso. apply (fl_not_zero _ E6).
  - exfalso. symmetry in E6. apply (fl_not_zero _ E6).
  - reflexivity.
Qed.

Lemma node_item_inj p q : el_ok (el (snd p)) -> el_ok (el (snd q)) -> node_item p = node_item q -> covn p = covn q.
Proof. intros Hp Hq E. rewrite !node_item_cov in E. apply NI_inj in E; auto. Qed.
Lemma edge_item_inj e1 e2 : edge_item e1 = edge_item e2 -> cove e1 = cove e2.
Proof. intros E. rewrite !edge_item_cov in E. apply EI_inj. exact E. Qed.

Lemma NI_nosep c sep : el_ok (fst (fst (fst (snd c)))) -> sep = 59%N \/ sep = 93%N -> nosep sep (NI c).
Proof.
  destruct c as [n [[[e c] a] h]]. cbn [fst snd]. unfold el_ok. intros He Hs. rewrite NI_form.
  destruct Hs; subst; nosep.
Qed.
Lemma EI_nosep c : nosep 59%N (EI c).
Proof.
  destruct c as [[u v] [[o t] s]]. rewrite EI_form. pose proof (OS_nosep o t 59%N (or_intror (or_introl eq_refl))) as H.
  destruct s; nosep.
Qed.
Lemma NI_not_nil c : NI c <> [].
Proof. destruct c as [n [[[e c] a] h]]. rewrite NI_form. intro E. apply (f_equal (@length N)) in E. rewrite app_length in E. simpl in E. lia. Qed.
Lemma EI_not_nil c : EI c <> [].
Proof. destruct c as [[u v] [[o t] s]]. rewrite EI_form. discriminate. Qed.

Lemma map_inj_in {A B} (f : A -> B) (P : A -> Prop) : (forall x y, P x -> P y -> f x = f y -> x = y) ->
  forall l l', Forall P l -> Forall P l' -> map f l = map f l' -> l = l'.
Proof.
  intros Hf. induction l as [|x l IH]; intros [|y l'] Hl Hl' E; try discriminate; auto.
  inversion E. inversion Hl; subst. inversion Hl'; subst. f_equal; auto.
Qed.

Definition cel_ok (c : N * (list N * Z * bool * Z)) : Prop := el_ok (fst (fst (fst (snd c)))).

Lemma cov_nodes_ok g : els_ok g -> Forall cel_ok (cov_nodes g).
Proof.
  intros H. unfold cov_nodes. apply Forall_forall. intros c I. apply in_map_iff in I. destruct I as (p & <- & I).
  unfold cel_ok, covn, ncov. simpl. apply H. exact I.
Qed.
Lemma sort_by_Forall {A} (key : A -> list Z) (P : A -> Prop) l : Forall P l -> Forall P (sort_by key l).
Proof. rewrite !Forall_forall. intros H x I. apply H. apply (sort_by_in key). exact I. Qed.

(* the text "N[" nodes "]|E[" edges "]" determines the two lists, for any injective edge item free of ';' *)
Lemma ser_text_inj {T} (item : T -> str) (ns ns' : list (N * (list N * Z * bool * Z))) (es es' : list T) :
  Forall cel_ok ns -> Forall cel_ok ns' -> (forall x y, item x = item y -> x = y) ->
  (forall x, nosep 59%N (item x)) -> (forall x, item x <> []) ->
  lit "N[" ++ join 59%N (map NI ns) ++ lit "]|E[" ++ join 59%N (map item es) ++ lit "]"
  = lit "N[" ++ join 59%N (map NI ns') ++ lit "]|E[" ++ join 59%N (map item es') ++ lit "]" ->
  ns = ns' /\ es = es'.
Proof.
  intros Fg Fh Hinj Hsep Hnil E.
  change (lit "N[") with [78%N; 91%N] in E. change (lit "]|E[") with [93%N; 124%N; 69%N; 91%N] in E.
  change (lit "]") with [93%N] in E. cbn [app] in E. inversion E as [E1]. clear E.
  assert (Sg : forall l, Forall cel_ok l -> Forall (nosep 93%N) (map NI l) /\ Forall (nosep 59%N) (map NI l) /\ Forall (fun x => x <> []) (map NI l)).
  { intros l Hl. repeat split; apply Forall_forall; intros x I; apply in_map_iff in I; destruct I as (c & <- & I);
      rewrite Forall_forall in Hl; try (apply NI_nosep; [apply Hl; auto|auto]). apply NI_not_nil. }
  assert (Si : forall l, Forall (nosep 59%N) (map item l) /\ Forall (fun x => x <> []) (map item l)).
  { intros l. split; apply Forall_forall; intros x I; apply in_map_iff in I; destruct I as (c & <- & _); auto. }
  destruct (Sg ns Fg) as (A1 & A2 & A3). destruct (Sg ns' Fh) as (B1 & B2 & B3).
  apply app_sep_inj in E1; [|apply join_nosep; [discriminate|auto]|apply join_nosep; [discriminate|auto]].
  destruct E1 as [E1 E2]. apply join_inj0 in E1; auto.
  split.
  - revert E1. apply (map_inj_in NI cel_ok); auto. intros x y Hx Hy. apply NI_inj; auto.
  - inversion E2 as [E3]. apply app_inj_tail in E3. destruct E3 as [E3 _].
    apply join_inj0 in E3; try apply Si.
    revert E3. apply (map_inj_in item (fun _ => True)); try (apply Forall_forall; auto). intros x y _ _. apply Hinj.
Qed.

(* the serialisation determines the sorted covered node and edge lists *)
Theorem serialise_inj_cov g h : els_ok g -> els_ok h -> serialise g = serialise h ->
  sort_by NK (cov_nodes g) = sort_by NK (cov_nodes h) /\ sort_by EK (cov_edges g) = sort_by EK (cov_edges h).
Proof.
  intros Hg Hh E. rewrite !serialise_cov in E. revert E.
  apply (ser_text_inj EI); auto using EI_inj, EI_nosep, EI_not_nil; apply sort_by_Forall, cov_nodes_ok; assumption.
Qed.

Theorem serialise_inj g h : els_ok g -> els_ok h -> serialise g = serialise h -> geq_cov g h.
Proof.
  intros Hg Hh E. destruct (serialise_inj_cov g h Hg Hh E) as [E1 E2]. split.
  - eapply perm_trans; [apply Permutation_sym, (sort_by_perm NK)|]. rewrite E1. apply sort_by_perm.
  - eapply perm_trans; [apply Permutation_sym, (sort_by_perm EK)|]. rewrite E2. apply sort_by_perm.
Qed.

(* ---------------- nauty label strings ---------------- *)
Definition NS (c : list N * Z * bool * Z) : str := let '(e, c0, a, h) := c in join 58%N [e; pybool a; decZ c0; decZ h].
Lemma node_str_cov g v : node_str g v = NS (ncov (attr_of g v)).
Proof. unfold node_str, NS, ncov. destruct (attr_of g v). reflexivity. Qed.
Definition EB (o : option ecv) : str :=
  match o with
  | Some (o, t, s) => 49%N :: 58%N :: OS o t ++ 58%N :: (match s with Some s => fl s | None => [] end)
  | None => [48%N; 58%N; 58%N]
  end.
Lemma ord_str_cov a : ord_str a = OS (eo a) (et a).
Proof. reflexivity. Qed.
Lemma edge_bit_cov g ab : edge_bit g ab = EB (option_map ecov (adj g (fst ab) (snd ab))).
Proof.
  unfold edge_bit, EB. destruct (adj g (fst ab) (snd ab)) as [[o s t]|]; [|reflexivity].
  cbn [option_map ecov eo es et]. rewrite ord_str_cov. cbn [eo et]. change (lit "1:") with [49%N; 58%N]. change (lit ":") with [58%N].
  cbn [app]. rewrite <- ?app_assoc. reflexivity.
Qed.

Lemma NS_inj c1 c2 : el_ok (fst (fst (fst c1))) -> el_ok (fst (fst (fst c2))) -> NS c1 = NS c2 -> c1 = c2.
Proof.
  destruct c1 as [[[e c] a] h], c2 as [[[e' c'] a'] h']. cbn [fst]. unfold el_ok, NS. intros He He' E.
  apply join_inj in E; try discriminate.
  - inversion E as [[E1 E2 E3 E4]]. apply pybool_inj in E2. apply decZ_inj in E3, E4. subst. reflexivity.
  - repeat constructor; nosep.
  - repeat constructor; nosep.
Qed.
Lemma NS_nosep c : el_ok (fst (fst (fst c))) -> nosep 124%N (NS c).
Proof.
  destruct c as [[[e c] a] h]. cbn [fst]. unfold el_ok, NS. intros He.
  apply join_nosep; [discriminate|]. repeat constructor; nosep.
Qed.
Lemma EB_inj o1 o2 : EB o1 = EB o2 -> o1 = o2.
Proof.
  destruct o1 as [[[o t] s]|], o2 as [[[o' t'] s']|]; unfold EB; intros E; try discriminate; auto.
  inversion E as [E1]. clear E.
  apply app_sep_inj in E1; [|apply OS_nosep; auto|apply OS_nosep; auto]. destruct E1 as [E1 E2].
  apply OS_inj in E1. destruct E1 as [-> ->].
  destruct s as [s|], s' as [s'|]; auto.
  - apply fl_inj in E2. subst. reflexivity.
  - exfalso. apply (fl_not_nil _ E2).
  - exfalso. symmetry in E2. apply (fl_not_nil _ E2).
Qed.
Lemma EB_nosep o : nosep 124%N (EB o).
Proof.
  destruct o as [[[o t] s]|]; unfold EB; [|nosep].
  pose proof (OS_nosep o t 124%N (or_intror (or_intror eq_refl))) as H. destruct s; nosep.
Qed.
Lemma EB_not_nil o : EB o <> [].
Proof. destruct o as [[[o t] s]|]; discriminate. Qed.

Lemma node_str_inj g h u v : el_ok (el (attr_of g u)) -> el_ok (el (attr_of h v)) ->
  node_str g u = node_str h v -> ncov (attr_of g u) = ncov (attr_of h v).
Proof. intros H1 H2 E. rewrite !node_str_cov in E. apply NS_inj in E; auto. Qed.
Lemma edge_bit_inj g h ab cd : edge_bit g ab = edge_bit h cd ->
  option_map ecov (adj g (fst ab) (snd ab)) = option_map ecov (adj h (fst cd) (snd cd)).
Proof. intros E. rewrite !edge_bit_cov in E. apply EB_inj. exact E. Qed.

Lemma map_transfer {A A' B C} (f : A -> B) (f' : A' -> B) (k : A -> C) (k' : A' -> C) :
  forall l l', (forall x y, In x l -> In y l' -> f x = f' y -> k x = k' y) -> map f l = map f' l' -> map k l = map k' l'.
Proof.
  induction l as [|x l IH]; intros [|y l'] H E; try discriminate; auto.
  inversion E. simpl. f_equal; [apply H; simpl; auto|apply IH; auto]. intros; apply H; simpl; auto.
Qed.

(* a label text (node segment, "||", edge fields [EB] of any lookups over any pair lists) determines the covered values *)
Lemma label_text_inj g h p q (lg lh : N * N -> option ecv) (eg eh : list (N * N)) : length p = length q ->
  (forall v, In v p -> el_ok (el (attr_of g v))) -> (forall v, In v q -> el_ok (el (attr_of h v))) ->
  node_seg g p ++ lit "||" ++ join 124%N (map (fun ab => EB (lg ab)) eg)
  = node_seg h q ++ lit "||" ++ join 124%N (map (fun ab => EB (lh ab)) eh) ->
  map (fun v => ncov (attr_of g v)) p = map (fun v => ncov (attr_of h v)) q /\ map lg eg = map lh eh.
Proof.
  intros Hl Hp Hq E.
  assert (Fields : join 124%N (map (fun ab => EB (lg ab)) eg) = join 124%N (map (fun ab => EB (lh ab)) eh) -> map lg eg = map lh eh).
  { intros E3. apply join_inj0 in E3.
    - revert E3. apply map_transfer. intros x y _ _. apply EB_inj.
    - apply Forall_forall. intros x I. apply in_map_iff in I. destruct I as (c & <- & _). apply EB_nosep.
    - apply Forall_forall. intros x I. apply in_map_iff in I. destruct I as (c & <- & _). apply EB_nosep.
    - apply Forall_forall. intros x I. apply in_map_iff in I. destruct I as (c & <- & _). apply EB_not_nil.
    - apply Forall_forall. intros x I. apply in_map_iff in I. destruct I as (c & <- & _). apply EB_not_nil. }
  destruct p as [|p0 p], q as [|q0 q]; try discriminate.
  - split; [reflexivity|]. apply Fields.
    change (node_seg g []) with (@nil N) in E. change (node_seg h []) with (@nil N) in E. exact (app_inv_head (lit "||") _ _ E).
  - unfold node_seg in E. change (lit "||") with [124%N; 124%N] in E. cbn [app] in E.
    apply join_prefix_inj in E.
    + destruct E as [E1 E2]. split.
      * revert E1. apply map_transfer. intros x y Hx Hy. apply node_str_inj; auto.
      * inversion E2 as [E3]. apply Fields. exact E3.
    + rewrite !map_length. exact Hl.
    + discriminate.
    + apply Forall_forall. intros x I. apply in_map_iff in I. destruct I as (c & <- & I). rewrite node_str_cov. apply NS_nosep.
      unfold ncov. cbn [fst]. apply Hp. exact I.
    + apply Forall_forall. intros x I. apply in_map_iff in I. destruct I as (c & <- & I). rewrite node_str_cov. apply NS_nosep.
      unfold ncov. cbn [fst]. apply Hq. exact I.
Qed.

Theorem nlabel_inj g h p q : length p = length q ->
  (forall v, In v p -> el_ok (el (attr_of g v))) -> (forall v, In v q -> el_ok (el (attr_of h v))) ->
  nlabel g p = nlabel h q ->
  map (fun v => ncov (attr_of g v)) p = map (fun v => ncov (attr_of h v)) q /\
  map (fun ab => option_map ecov (adj g (fst ab) (snd ab))) (pairs p)
  = map (fun ab => option_map ecov (adj h (fst ab) (snd ab))) (pairs q).
Proof.
  intros Hl Hp Hq E. apply label_text_inj; auto. unfold nlabel in E.
  rewrite !(map_ext (edge_bit _) _ (edge_bit_cov _)) in E. exact E.
Qed.

Print Assumptions serialise_inj.
Print Assumptions nlabel_inj.
