(** C18 — the generated equivalence [EC] and a union-find in any representation ([fold_union_EC]: folding a union step over
    pairs yields the equivalence they generate); the orbit computation of the CRNAutomorphism model ([uf_orbits]: union-find
    over all (node, image) pairs of all enumerated self-maps) returns exactly the classes of nodes exchangeable by
    structure-preserving self-maps. *)
From Coq Require Import List NArith ZArith Bool Arith Lia Permutation.
From SK Require Import lib.IRCore lib.IRSearch lib.C18_IRValid model.C18_Model proof.C18_Spec proof.C18_Graph proof.C18_Aut proof.C18_Vf2.
Import ListNotations.

Definition conn (cls : list (list N)) (u v : N) : Prop := exists c, In c cls /\ In u c /\ In v c.

Lemma in_two_classes (cls : list (list N)) c c' x : NoDup (concat cls) -> In c cls -> In c' cls -> In x c -> In x c' -> c = c'.
Proof.
  intros Hnd Hc Hc' Hx Hx'. apply in_split in Hc. destruct Hc as (l1 & l2 & ->).
  rewrite concat_app in Hnd. simpl in Hnd.
  apply in_app_or in Hc'. destruct Hc' as [I|[I|I]]; auto.
  - exfalso. apply (NoDup_app_disj _ _ x Hnd); [apply in_concat; eauto|apply in_or_app; auto].
  - exfalso. apply NoDup_app_r in Hnd. apply (NoDup_app_disj _ _ x Hnd); auto. apply in_concat; eauto.
Qed.

Lemma class_of_in cls v : In v (concat cls) -> In (class_of cls v) cls /\ In v (class_of cls v).
Proof.
  intros H. unfold class_of. apply in_concat in H. destruct H as (c & Hc & Hv).
  destruct (filter (memN v) cls) as [|c0 l] eqn:E.
  - exfalso. assert (I : In c (filter (memN v) cls)) by (apply filter_In; split; auto; apply memN_spec; auto). rewrite E in I. contradiction.
  - assert (I : In c0 (filter (memN v) cls)) by (rewrite E; left; auto). apply filter_In in I. destruct I as [I1 I2].
    apply memN_spec in I2. auto.
Qed.

Lemma filter_all {A} (f : A -> bool) l : (forall x, In x l -> f x = true) -> filter f l = l.
Proof. induction l as [|x l IH]; simpl; intros H; auto. rewrite H by auto. f_equal. apply IH. auto. Qed.

(** removing the class of [a] *)
Lemma remove_class (cls : list (list N)) a ca : NoDup (concat cls) -> In ca cls -> In a ca ->
  Permutation (concat cls) (ca ++ concat (filter (fun c => negb (memN a c)) cls)).
Proof.
  intros Hnd Hc Ha. induction cls as [|d cls IH]; [contradiction|]. simpl in *.
  destruct (memN a d) eqn:E; simpl.
  - apply memN_spec in E. assert (d = ca).
    { apply (in_two_classes (d :: cls) d ca a); simpl; auto. }
    subst d. apply Permutation_app_head.
    assert (F : filter (fun c => negb (memN a c)) cls = cls).
    { apply filter_all. intros e He. apply negb_true_iff. destruct (memN a e) eqn:E'; auto.
      exfalso. apply memN_spec in E'. apply (NoDup_app_disj _ _ a Hnd); auto. apply in_concat; eauto. }
    rewrite F. auto.
  - destruct Hc as [->|Hc]; [apply memN_spec in Ha; congruence|].
    eapply perm_trans; [apply Permutation_app_head; apply IH; auto; apply NoDup_app_r in Hnd; auto|].
    rewrite !app_assoc. apply Permutation_app_tail. apply Permutation_app_comm.
Qed.

Lemma filter_twice {A} (f g : A -> bool) l : filter f (filter g l) = filter (fun x => g x && f x) l.
Proof. induction l as [|x l IH]; simpl; auto. destruct (g x); simpl; [destruct (f x); simpl; rewrite IH; auto|auto]. Qed.

Section UF.
Variable nodes : list N.
Hypothesis nodes_nd : NoDup nodes.

Definition part (cls : list (list N)) : Prop := NoDup (concat cls) /\ Permutation (concat cls) nodes.

Lemma conn_sym cls u v : conn cls u v -> conn cls v u.
Proof. intros (c & H1 & H2 & H3). exists c. auto. Qed.
Lemma conn_trans cls u v w : part cls -> conn cls u v -> conn cls v w -> conn cls u w.
Proof.
  intros [Hnd _] (c & H1 & H2 & H3) (c' & H1' & H2' & H3').
  assert (c = c') by (apply (in_two_classes cls c c' v); auto). subst c'. exists c. auto.
Qed.
Lemma conn_refl cls v : part cls -> In v nodes -> conn cls v v.
Proof.
  intros [_ Hp] Hv. apply (Permutation_in _ (Permutation_sym Hp)) in Hv. apply in_concat in Hv.
  destruct Hv as (c & H1 & H2). exists c. auto.
Qed.
Lemma conn_class cls a u c : part cls -> In c cls -> In a c -> conn cls u a -> In u c.
Proof.
  intros [Hnd _] Hc Ha (c' & H1 & H2 & H3). assert (c' = c) by (apply (in_two_classes cls c' c a); auto). subst. auto.
Qed.

Theorem cmerge_spec cls a b : part cls -> In a nodes -> In b nodes ->
  part (cmerge cls a b) /\
  (forall u v, conn (cmerge cls a b) u v <->
               (conn cls u v \/ (conn cls u a /\ conn cls b v) \/ (conn cls u b /\ conn cls a v))).
Proof.
  intros HP Ha Hb. pose proof HP as [Hnd Hp].
  assert (Ia : In a (concat cls)) by (apply (Permutation_in _ (Permutation_sym Hp)); auto).
  assert (Ib : In b (concat cls)) by (apply (Permutation_in _ (Permutation_sym Hp)); auto).
  destruct (class_of_in cls a Ia) as [Hca Haca]. destruct (class_of_in cls b Ib) as [Hcb Hbcb].
  unfold cmerge. set (ca := class_of cls a) in *. set (cb := class_of cls b) in *.
  destruct (memN b ca) eqn:Eb.
  - apply memN_spec in Eb. split; auto. intros u v. split; auto.
    assert (Cab : conn cls a b) by (exists ca; auto).
    intros [H|[[H1 H2]|[H1 H2]]]; auto.
    + apply (conn_trans cls u a v HP H1). apply (conn_trans cls a b v HP Cab H2).
    + apply (conn_trans cls u b v HP H1). apply (conn_trans cls b a v HP (conn_sym _ _ _ Cab) H2).
  - assert (Hnb : ~ In b ca) by (intro I; apply memN_spec in I; congruence).
    assert (Hna : ~ In a cb).
    { intro I. apply Hnb. assert (E : cb = ca) by (apply (in_two_classes cls cb ca a); auto). rewrite <- E. auto. }
    set (rest := filter (fun c => negb (memN a c) && negb (memN b c)) cls).
    assert (P1 : Permutation (concat cls) (ca ++ cb ++ concat rest)).
    { eapply perm_trans; [apply (remove_class cls a ca Hnd Hca Haca)|]. apply Permutation_app_head.
      assert (Hnd1 : NoDup (concat (filter (fun c => negb (memN a c)) cls))).
      { apply (NoDup_app_r ca). eapply Permutation_NoDup; [apply (remove_class cls a ca Hnd Hca Haca)|auto]. }
      assert (Hcb1 : In cb (filter (fun c => negb (memN a c)) cls)).
      { apply filter_In. split; auto. apply negb_true_iff. destruct (memN a cb) eqn:E; auto. apply memN_spec in E. contradiction. }
      eapply perm_trans; [apply (remove_class _ b cb Hnd1 Hcb1 Hbcb)|]. unfold rest. rewrite filter_twice. apply Permutation_refl. }
    assert (HP' : part ((ca ++ cb) :: rest)).
    { split; simpl; rewrite <- app_assoc.
      - eapply Permutation_NoDup; [exact P1|auto].
      - eapply perm_trans; [apply Permutation_sym; exact P1|auto]. }
    split; auto. intros u v. split.
    + intros (c & [<-|Hc] & Hu & Hv).
      * apply in_app_or in Hu, Hv. destruct Hu as [Hu|Hu], Hv as [Hv|Hv].
        -- left. exists ca. auto.
        -- right. left. split; [exists ca; auto|exists cb; auto].
        -- right. right. split; [exists cb; auto|exists ca; auto].
        -- left. exists cb. auto.
      * left. unfold rest in Hc. apply filter_In in Hc. exists c. tauto.
    + assert (Old : forall x y, conn cls x y -> conn ((ca ++ cb) :: rest) x y).
      { intros x y (c & Hc & Hx & Hy). destruct (memN a c) eqn:E1.
        - apply memN_spec in E1. assert (Ec : c = ca) by (apply (in_two_classes cls c ca a); auto). rewrite Ec in *.
          exists (ca ++ cb). split; [left; auto|]. split; apply in_or_app; auto.
        - destruct (memN b c) eqn:E2.
          + apply memN_spec in E2. assert (Ec : c = cb) by (apply (in_two_classes cls c cb b); auto). rewrite Ec in *.
            exists (ca ++ cb). split; [left; auto|]. split; apply in_or_app; auto.
          + exists c. split; [right; unfold rest; apply filter_In; split; auto; rewrite E1, E2; reflexivity|auto]. }
      intros [H|[[H1 H2]|[H1 H2]]]; auto.
      * exists (ca ++ cb). split; [left; auto|]. split; apply in_or_app.
        -- left. apply (conn_class cls a u ca HP Hca Haca H1).
        -- right. apply (conn_class cls b v cb HP Hcb Hbcb (conn_sym _ _ _ H2)).
      * exists (ca ++ cb). split; [left; auto|]. split; apply in_or_app.
        -- right. apply (conn_class cls b u cb HP Hcb Hbcb H1).
        -- left. apply (conn_class cls a v ca HP Hca Haca (conn_sym _ _ _ H2)).
Qed.

(* ---------------- the generated equivalence ---------------- *)
Inductive EC (R0 : N -> N -> Prop) (P : list (N * N)) : N -> N -> Prop :=
| ec_base u v : R0 u v -> EC R0 P u v
| ec_pair a b : In (a, b) P -> EC R0 P a b
| ec_sym u v : EC R0 P u v -> EC R0 P v u
| ec_trans u v w : EC R0 P u v -> EC R0 P v w -> EC R0 P u w.

Lemma EC_least (R0 : N -> N -> Prop) P (R : N -> N -> Prop) :
  (forall u v, R0 u v -> R u v) -> (forall a b, In (a, b) P -> R a b) ->
  (forall u v, R u v -> R v u) -> (forall u v w, R u v -> R v w -> R u w) ->
  forall u v, EC R0 P u v -> R u v.
Proof. intros Hb Hp Hs Ht u v H. induction H; eauto. Qed.

Lemma EC_mono (R0 R0' : N -> N -> Prop) P P' : (forall u v, R0 u v -> EC R0' P' u v) -> incl P P' ->
  forall u v, EC R0 P u v -> EC R0' P' u v.
Proof. intros Hb Hp. apply EC_least; [exact Hb|intros a b I; apply ec_pair, Hp, I|apply ec_sym|apply ec_trans]. Qed.

Lemma EC_base_iff (R0 R0' : N -> N -> Prop) P : (forall u v, R0 u v <-> R0' u v) -> forall u v, EC R0 P u v <-> EC R0' P u v.
Proof. intros H u v. split; apply EC_mono; try apply incl_refl; intros x y Hxy; apply ec_base, H, Hxy. Qed.

Lemma fold_left_concat {A B} (f : A -> B -> A) (ls : list (list B)) :
  forall a, fold_left (fun a l => fold_left f l a) ls a = fold_left f (concat ls) a.
Proof. induction ls as [|l ls IH]; intros a; simpl; [reflexivity|]. rewrite fold_left_app. apply IH. Qed.

(** A union-find in any representation: states [St] with an invariant, the relation "in one class" read off a state, and a
    union step that joins the classes of its two arguments.  Folding the step over a list of pairs yields the equivalence
    generated by the pairs over the initial classes. *)
Section Fold.
Variables (St : Type) (Inv : St -> Prop) (rel : St -> N -> N -> Prop) (un : St -> N -> N -> St).
Hypothesis rel_sym : forall s u v, rel s u v -> rel s v u.
Hypothesis rel_trans : forall s u v w, Inv s -> rel s u v -> rel s v w -> rel s u w.
Hypothesis rel_refl : forall s v, Inv s -> In v nodes -> rel s v v.
Hypothesis un_spec : forall s a b, Inv s -> In a nodes -> In b nodes ->
  Inv (un s a b) /\
  forall u v, rel (un s a b) u v <-> rel s u v \/ (rel s u a /\ rel s b v) \/ (rel s u b /\ rel s a v).

Theorem fold_union_EC L : forall s, Inv s -> (forall ph, In ph L -> In (fst ph) nodes /\ In (snd ph) nodes) ->
  Inv (fold_left (fun s ph => un s (fst ph) (snd ph)) L s) /\
  forall u v, rel (fold_left (fun s ph => un s (fst ph) (snd ph)) L s) u v <-> EC (rel s) L u v.
Proof.
  induction L as [|[a b] L IH]; intros s HI HL; simpl.
  - split; [exact HI|]. intros u v. split; [apply ec_base|].
    apply EC_least; [auto|intros ? ? []|apply rel_sym|intros x y z; apply rel_trans, HI].
  - destruct (HL (a, b) (or_introl eq_refl)) as [Ha Hb]. simpl in Ha, Hb.
    destruct (un_spec s a b HI Ha Hb) as [HI1 Hc1].
    destruct (IH (un s a b) HI1 (fun ph I => HL ph (or_intror I))) as [HI2 Hc2].
    split; [exact HI2|]. intros u v. rewrite Hc2. split; apply EC_least; try apply ec_sym; try apply ec_trans.
    + intros x y H. apply Hc1 in H. destruct H as [H|[[H1 H2]|[H1 H2]]]; [apply ec_base, H| |].
      * apply (ec_trans _ _ x a y); [apply ec_base, H1|].
        apply (ec_trans _ _ a b y); [apply ec_pair; left; reflexivity|apply ec_base, H2].
      * apply (ec_trans _ _ x b y); [apply ec_base, H1|].
        apply (ec_trans _ _ b a y); [apply ec_sym, ec_pair; left; reflexivity|apply ec_base, H2].
    + intros x y I. apply ec_pair. right. exact I.
    + intros x y H. apply ec_base, Hc1. left. exact H.
    + intros x y [E|I]; [|apply ec_pair, I]. inversion E; subst.
      apply ec_base, Hc1. right. left. split; apply rel_refl; assumption.
Qed.
End Fold.

Lemma EC_on_nodes P u v : (forall ph, In ph P -> In (fst ph) nodes /\ In (snd ph) nodes) ->
  (EC (fun x y => x = y /\ In x nodes) P u v <-> In u nodes /\ In v nodes /\ EC (fun x y => x = y) P u v).
Proof.
  intros HP. split.
  - revert u v. apply (EC_least _ _ (fun u v => In u nodes /\ In v nodes /\ EC (fun x y => x = y) P u v)).
    + intros x y [<- Hx]. split; [exact Hx|]. split; [exact Hx|apply ec_base; reflexivity].
    + intros a b I. destruct (HP _ I) as [Ha Hb]. split; [exact Ha|]. split; [exact Hb|apply ec_pair, I].
    + intros x y (Hx & Hy & E). split; [exact Hy|]. split; [exact Hx|apply ec_sym, E].
    + intros x y z (Hx & _ & E1) (_ & Hz & E2). split; [exact Hx|]. split; [exact Hz|exact (ec_trans _ _ _ _ _ E1 E2)].
  - intros (Hu & Hv & H).
    (* a chain between two nodes stays inside the nodes: one end in the nodes puts the other end there *)
    enough (G : forall a b, EC (fun x y => x = y) P a b -> In a nodes \/ In b nodes ->
                  EC (fun x y => x = y /\ In x nodes) P a b /\ In a nodes /\ In b nodes) by (apply (G u v H); left; exact Hu).
    clear u v Hu Hv H.
    apply (EC_least _ _ (fun a b => In a nodes \/ In b nodes ->
                                    EC (fun x y => x = y /\ In x nodes) P a b /\ In a nodes /\ In b nodes)).
    + intros x y <- Hd. assert (In x nodes) by tauto. split; [apply ec_base|]; auto.
    + intros a b I _. destruct (HP _ I) as [Ha Hb]. split; [apply ec_pair, I|auto].
    + intros x y IH Hd. destruct IH as (E & Hx & Hy); [tauto|]. split; [apply ec_sym, E|auto].
    + intros x y z IH1 IH2 [Hd|Hd].
      * destruct IH1 as (E1 & Hx & Hy); [auto|]. destruct IH2 as (E2 & _ & Hz); [auto|]. split; [exact (ec_trans _ _ _ _ _ E1 E2)|auto].
      * destruct IH2 as (E2 & Hy & Hz); [auto|]. destruct IH1 as (E1 & Hx & _); [auto|]. split; [exact (ec_trans _ _ _ _ _ E1 E2)|auto].
Qed.

Lemma part_init : part (map (fun v => [v]) nodes).
Proof.
  assert (E : forall l : list N, concat (map (fun v : N => [v]) l) = l) by (induction l as [|x l IH]; simpl; auto; f_equal; auto).
  split; rewrite E; auto.
Qed.
Lemma conn_init u v : conn (map (fun v => [v]) nodes) u v <-> u = v /\ In u nodes.
Proof.
  split.
  - intros (c & Hc & Hu & Hv). apply in_map_iff in Hc. destruct Hc as (x & <- & Hx).
    destruct Hu as [<-|[]], Hv as [<-|[]]. auto.
  - intros [<- H]. exists [u]. split; [apply in_map_iff; eauto|simpl; auto].
Qed.

Theorem uf_orbits_spec maps : (forall m ph, In m maps -> In ph m -> In (fst ph) nodes /\ In (snd ph) nodes) ->
  part (uf_orbits nodes maps) /\
  (forall u v, conn (uf_orbits nodes maps) u v <-> EC (fun x y => x = y /\ In x nodes) (concat maps) u v).
Proof.
  intros HM. unfold uf_orbits. rewrite fold_left_concat.
  destruct (fold_union_EC _ part conn cmerge conn_sym conn_trans conn_refl cmerge_spec (concat maps) _ part_init) as [H1 H2].
  - intros ph I. apply in_concat in I. destruct I as (m & Hm & I). apply (HM m ph Hm I).
  - split; [exact H1|]. intros u v. rewrite H2. apply EC_base_iff, conn_init.
Qed.
End UF.

(* ---------------- the structure-preserving self-maps form a group ---------------- *)
Lemma aut_id g : is_aut g (fun v => v).
Proof. apply is_aut_pres, pres_id. Qed.
Lemma aut_comp g s t : is_aut g s -> is_aut g t -> is_aut g (fun v => t (s v)).
Proof. rewrite !is_aut_pres. apply pres_comp. Qed.
Lemma aut_inv g s : wf g -> is_aut g s -> exists t, is_aut g t /\ forall v, In v (node_ids g) -> t (s v) = v.
Proof. intros Hw. setoid_rewrite is_aut_pres. apply pres_inv, Hw. Qed.

(* ---------------- orbits of the CRNAutomorphism model ---------------- *)
Lemma in_combine_map_conv {A B} (f : A -> B) l x : In x l -> In (x, f x) (combine l (map f l)).
Proof. induction l as [|y l IH]; simpl; [tauto|]. intros [->|I]; auto. Qed.

Lemma auts_pairs g : wf g -> forall p h, In (p, h) (concat (auts g)) <-> In p (node_ids g) /\ exists s, is_aut g s /\ h = s p.
Proof.
  intros Hw p h. destruct (auts_spec g Hw) as (_ & Ain & Aout).
  pose proof (aut_order_perm g (proj1 Hw)) as Hp. split.
  - intros I. apply in_concat in I. destruct I as (m & Hm & I). destruct (Aout m Hm) as (s & Hs & ->).
    apply in_rev in I. destruct (in_combine_map _ _ _ I) as [I1 I2]. simpl in *. split; [apply (Permutation_in _ Hp); auto|eauto].
  - intros (Hn & s & Hs & ->). apply in_concat. exists (rev (combine (aut_order g) (map s (aut_order g)))). split; auto.
    apply -> in_rev. apply in_combine_map_conv. apply (Permutation_in _ (Permutation_sym Hp)). auto.
Qed.

Theorem vf2_orbits g : wf g ->
  part (node_ids g) (uf_orbits (node_ids g) (auts g)) /\
  (forall u v, In u (node_ids g) ->
     (conn (uf_orbits (node_ids g) (auts g)) u v <-> exists s, is_aut g s /\ s u = v)).
Proof.
  intros Hw. pose proof (auts_pairs g Hw) as HP.
  destruct (uf_orbits_spec (node_ids g) (proj1 Hw) (auts g)) as [H1 H2].
  - intros m [p h] Hm I. simpl. assert (I' : In (p, h) (concat (auts g))) by (apply in_concat; eauto).
    apply HP in I'. destruct I' as (Hn & s & Hs & ->). split; auto. apply Hs. auto.
  - split; auto. intros u v Hu. rewrite H2. split.
    + intros H.
      apply (EC_least _ _ (fun u v => In u (node_ids g) /\ In v (node_ids g) /\ exists s, is_aut g s /\ s u = v)) in H; [tauto| | | |].
      * intros x y [<- Hx]. split; [exact Hx|]. split; [exact Hx|]. exists (fun x => x). split; [apply aut_id|reflexivity].
      * intros a b I. apply HP in I. destruct I as (Ha & s & Hs & ->). split; [exact Ha|]. split; [apply Hs, Ha|eauto].
      * intros x y (Hx & Hy & s & Hs & <-). destruct (aut_inv g s Hw Hs) as (t & Ht & Hl).
        split; [exact Hy|]. split; [exact Hx|]. exists t. split; [exact Ht|apply Hl, Hx].
      * intros x y z (Hx & Hy & s1 & Hs1 & <-) (_ & Hz & s2 & Hs2 & <-). split; [exact Hx|]. split; [exact Hz|].
        exists (fun x => s2 (s1 x)). split; [apply aut_comp; assumption|reflexivity].
    + intros (s & Hs & <-). apply ec_pair. apply HP. split; eauto.
Qed.
