(** C02 — proofs about the RadiusExpand helpers (find_unequal_order_edges, remove_normal_edges, extract_k option
    handling, context extraction over a list) and about ITS graphs built with ignore_aromaticity=True. *)
From Coq Require Import List NArith ZArith Bool Lia.
From SK Require Import lib.LGraph lib.Reach lib.C01_GraphLemmas model.C01_Model model.C02_Model proof.C02_Ball
                       proof.C02_Proof proof.C02_Opts proof.C02_Wfb.
Import ListNotations.
Local Open Scope Z_scope.

(** * find_unequal_order_edges *)
(** the atoms collected from the bonds that satisfy a test, for any bond type *)
Lemma ends_fold {B} (p : B -> bool) (L : list (N * N * B)) : forall S n,
  In n (fold_left (fun S (e : N * N * B) => let '(u, v, x) := e in if p x then add_all [u; v] S else S) L S) <->
  In n S \/ exists a b x, In (a, b, x) L /\ p x = true /\ (n = a \/ n = b).
Proof.
  induction L as [|[[u v] y] L IH]; intros S n; cbn [fold_left].
  - split; [auto|]. intros [I|(a & b & x & [] & _)]. exact I.
  - rewrite IH. destruct (p y) eqn:U.
    + rewrite add_all_in. cbn [In]. split.
      * intros [[[E|[E|[]]]|I]|(a & b & x & I & Ux & Hn)].
        -- right. exists u, v, y. split; [left; reflexivity|auto].
        -- right. exists u, v, y. split; [left; reflexivity|auto].
        -- left. exact I.
        -- right. exists a, b, x. split; [right; exact I|auto].
      * intros [I|(a & b & x & [E|I] & Ux & Hn)].
        -- left. right. exact I.
        -- inversion E; subst. left. left. destruct Hn as [->| ->]; auto.
        -- right. exists a, b, x. auto.
    + split.
      * intros [I|(a & b & x & I & Ux & Hn)]; [left; exact I|]. right. exists a, b, x. split; [right; exact I|auto].
      * intros [I|(a & b & x & [E|I] & Ux & Hn)]; [left; exact I| |].
        -- inversion E; subst. congruence.
        -- right. exists a, b, x. auto.
Qed.

Lemma unequal_nodes_spec g n :
  In n (unequal_nodes g) <-> exists a b x, In (a, b, x) (gedges g) /\ unequal x = true /\ (n = a \/ n = b).
Proof. unfold unequal_nodes. rewrite (ends_fold unequal). simpl. tauto. Qed.

Lemma unequal_changed x : unequal x = true -> changed x = true.
Proof. unfold unequal, changed. rewrite andb_true_iff. tauto. Qed.

(** in general: a subset of the centre atoms *)
Theorem unequal_sub_rc (g : its) : wf g -> forall n, In n (unequal_nodes g) -> In n (node_ids (get_rc g)).
Proof.
  intros W n I. apply unequal_nodes_spec in I. destruct I as (a & b & x & I & U & Hn). apply rc_keys.
  exists a, b, x. repeat split; auto; [left; apply unequal_changed; exact U|].
  destruct (wf_edge_nodes W I) as (Ia & Ib & _). destruct Hn as [->| ->]; assumption.
Qed.

(** standard_order != 0 only on bonds whose two orders differ: holds for both ways ITSGraph computes standard_order *)
Definition std_sound (g : its) : Prop := forall u v x, In (u, v, x) (gedges g) -> e_std x <> 0 -> e_G x <> e_H x.

Lemma std_consistent_sound g : std_consistent g -> std_sound g.
Proof. intros H u v x I. rewrite (H u v x I). lia. Qed.
Lemma ia_consistent_sound g : ia_consistent g -> std_sound g.
Proof. intros H u v x I. rewrite (H u v x I). destruct (Z.abs (e_G x - e_H x) <? 2); lia. Qed.

Theorem unequal_eq_rc (g : its) : wf g -> (std_consistent g \/ ia_consistent g) ->
  (forall u v x, In (u, v, x) (gedges g) -> is_hh g u v = true -> e_std x <> 0) ->
  forall n, In n (unequal_nodes g) <-> In n (node_ids (get_rc g)).
Proof.
  intros W Hc Hh n. split; [apply unequal_sub_rc; exact W|].
  assert (std_sound g) as Hs by (destruct Hc; [apply std_consistent_sound|apply ia_consistent_sound]; assumption).
  intros I. apply rc_keys in I. destruct I as (a & b & x & I & Hx & Hn & _). apply unequal_nodes_spec.
  exists a, b, x. repeat split; auto.
  assert (e_std x <> 0) as Hne.
  { destruct Hx as [C|Hhh]; [|eapply Hh; eauto]. unfold changed in C. rewrite negb_true_iff, Z.eqb_neq in C. exact C. }
  unfold unequal. rewrite andb_true_iff, !negb_true_iff, !Z.eqb_neq. split; [eapply Hs; eauto|exact Hne].
Qed.

(** strictness: an unchanged H-H bond is in the centre, its atoms are not reported by find_unequal_order_edges *)
Theorem unequal_strict : exists (g : its) (n : N),
  wf g /\ std_consistent g /\ In n (node_ids (get_rc g)) /\ ~ In n (unequal_nodes g).
Proof.
  exists ex_its, 8%N. split; [apply ex_its_wf|]. split; [apply ex_its_std|]. split.
  - vm_compute. tauto.
  - vm_compute. intuition discriminate.
Qed.

(** * remove_normal_edges(., "standard_order") *)
Theorem remove_normal_spec (g : its) : wf g ->
  gnodes (remove_normal g) = gnodes g /\
  (forall u v e, adj (remove_normal g) u v = Some e <-> adj g u v = Some e /\ e_std e <> 0) /\
  (forall u v e, adj (remove_normal g) u v = Some e -> adj (get_rc g) u v = Some e).
Proof.
  intros W. split; [reflexivity|]. pose proof (find_edge_filter_iff changed (gedges g) (wf_simple W)) as E. split.
  - intros u v e. unfold adj at 1, remove_normal. cbn [gedges]. rewrite E. unfold changed. rewrite negb_true_iff, Z.eqb_neq. reflexivity.
  - intros u v e A. apply (E u v e) in A. apply (rc_adj g W). tauto.
Qed.

Theorem remove_normal_mtg_spec (g : xits) : wf g ->
  gnodes (remove_normal_mtg g) = gnodes g /\
  (forall u v x, adj (remove_normal_mtg g) u v = Some x <-> adj g u v = Some x /\ snd x <> Some false).
Proof.
  intros W. split; [reflexivity|]. intros u v x. unfold adj at 1, remove_normal_mtg. cbn [gedges].
  rewrite (find_edge_filter_iff (fun y => negb (mtg_is_false y)) (gedges g) (wf_simple W)).
  destruct x as [e [[|]|]]; simpl; intuition congruence.
Qed.

(** extract_subgraph: the induced subgraph on the listed atoms that exist *)
Theorem extract_subgraph_spec (g : its) (ids : list N) : wf g ->
  (forall n a, label (extract_subgraph g ids) n = Some a <-> label g n = Some a /\ In n ids) /\
  (forall u v e, adj (extract_subgraph g ids) u v = Some e <-> adj g u v = Some e /\ In u ids /\ In v ids).
Proof. exact (induced_sub_spec g ids). Qed.

(** * extract_k: option handling *)
Theorem extract_k_z_nonneg (g : its) k : 0 <= k -> extract_k_z g k = extract_k g (Z.to_nat k).
Proof.
  intros Hk. unfold extract_k_z. destruct (Z.eqb_spec k 0) as [->|Hne]; [reflexivity|].
  destruct (Z.eqb_spec k (-1)) as [->|_]; [lia|].
  destruct (Z.to_nat k) as [|j] eqn:Ej; [lia|]. reflexivity.
Qed.

Theorem extract_k_z_minus1 (g : its) : wf g ->
  let rcn := node_ids (get_rc g) in
  let r := length (lre g rcn) in
  extract_k_z g (-1) = induced_sub g (knn g rcn r) /\
  (forall n, In n (node_ids (extract_k_z g (-1))) <-> dist_le g rcn r n).
Proof.
  intros W rcn r. split; [reflexivity|]. intros n. change (extract_k_z g (-1)) with (induced_sub g (knn g rcn r)).
  rewrite node_ids_induced, knn_spec. split; [tauto|]. intros H. split; [|exact H].
  eapply dist_le_in_nodes; eauto.
Qed.

(** * context extraction over a list of reactions: element i of the result is computed from element i alone *)
Theorem context_list_spec (gs : list its) k :
  length (context_list gs k) = length gs /\
  forall i, nth_error (context_list gs k) i = option_map (fun g => (g, extract_k_z g k)) (nth_error gs i).
Proof. unfold context_list. split; [apply map_length|]. intros i. apply nth_error_map. Qed.

(** * ITSGraph(ignore_aromaticity, balance_its) *)
Theorem its_construct_ab_default G H : its_construct_ab false false G H = its_construct G H.
Proof. reflexivity. Qed.

Theorem its_construct_ia_consistent bal G H : ia_consistent (its_construct_ab true bal G H).
Proof.
  intros u v x I. unfold its_construct_ab in I. simpl in I. apply in_app_iff in I.
  destruct I as [I|I]; apply in_map_iff in I; destruct I as ([[a b] o] & E & _); inversion E; subst; reflexivity.
Qed.

Theorem its_construct_noia_consistent bal G H : std_consistent (its_construct_ab false bal G H).
Proof.
  intros u v x I. unfold its_construct_ab in I. simpl in I. apply in_app_iff in I.
  destruct I as [I|I]; apply in_map_iff in I; destruct I as ([[a b] o] & E & _); inversion E; subst; reflexivity.
Qed.

(** centre of an ignore_aromaticity ITS: bonds whose orders differ by at least 1 (2 half-units), or H-H *)
Theorem rc_edges_ia (g : its) : wf g -> ia_consistent g -> forall u v e,
  adj (get_rc g) u v = Some e <->
  adj g u v = Some e /\ (2 <= Z.abs (e_G e - e_H e) \/ (is_h g u = true /\ is_h g v = true)).
Proof.
  intros W Hc. apply (rc_edges_when g (fun e => 2 <= Z.abs (e_G e - e_H e)) W).
  intros u v e I. unfold changed. rewrite negb_true_iff, Z.eqb_neq, (Hc u v e I).
  destruct (Z.ltb_spec (Z.abs (e_G e - e_H e)) 2); lia.
Qed.

(** there "order differs => in the centre" fails: an aromatic bond (1.5) that becomes single (1.0) *)
Definition ia_G : mgraph := LG [(1%N, GN 70%N true 1 0 None 1); (2%N, GN 70%N true 1 0 None 2)] [(1%N, 2%N, 3)].
Definition ia_H : mgraph := LG [(1%N, GN 70%N false 2 0 None 1); (2%N, GN 70%N false 2 0 None 2)] [(1%N, 2%N, 2)].
Definition ia_its : its := its_construct_ab true false ia_G ia_H.

Lemma ia_its_wf : wf ia_its.
Proof. apply wfb_sound. reflexivity. Qed.

Theorem rc_edges_ia_refuted : exists (g : its) (u v : N) (e : iedge),
  wf g /\ ia_consistent g /\ adj g u v = Some e /\ e_G e <> e_H e /\ adj (get_rc g) u v = None /\ gnodes (get_rc g) = [].
Proof.
  exists ia_its, 1%N, 2%N, (IE 3 2 0). split; [apply ia_its_wf|]. split; [apply its_construct_ia_consistent|].
  vm_compute. repeat split; try reflexivity. discriminate.
Qed.

(** * non-vacuity *)
Definition xex : xits :=
  LG [(1%N, XN (Some 70%N) (Some 0) (Some 1) None None None (Some (NA 70%N false 0 0 [], NA 70%N false 0 0 [])));
      (2%N, XN (Some 70%N) (Some 0) (Some 2) None None None (Some (NA 70%N false 0 0 [], NA 70%N false 0 0 [])));
      (3%N, XN (Some 82%N) (Some 0) (Some 3) None None None (Some (NA 82%N false 0 (-1) [], NA 82%N false 0 0 [])));
      (4%N, XN (Some 2%N) (Some 0) (Some 4) None None None None);
      (5%N, XN (Some 2%N) (Some 0) (Some 5) None None None None);
      (6%N, XN (Some 70%N) (Some 0) (Some 6) None None None (Some (NA 70%N false 0 0 [], NA 70%N false 0 0 [])))]
     [(1%N, 2%N, (IE 2 4 (-2), None)); (2%N, 3%N, (IE 2 2 0, None)); (4%N, 5%N, (IE 2 2 0, Some false));
      (2%N, 6%N, (IE 2 2 0, Some true))].

Lemma xex_wf : wf xex.
Proof. apply wfb_sound. reflexivity. Qed.

(** default: bonds 1-2 (changed), 4-5 (H-H, fallback typesGH written); keep_mtg adds 2-6; disconnected adds atom 3
    and the bond 2-3 without is_mtg; element_key = [element] drops the other labels but H atoms keep typesGH *)
Example C02_opts_nonvacuous :
  wf xex /\
  map fst (gnodes (get_rc_x K_default false false xex)) = [1; 2; 4; 5]%N /\
  map fst (gnodes (get_rc_x K_default false true xex)) = [1; 2; 6; 4; 5]%N /\
  map fst (gnodes (get_rc_x K_default true false xex)) = [1; 2; 4; 5; 3]%N /\
  adj (get_rc_x K_default true false xex) 2%N 3%N = Some (IE 2 2 0, None) /\
  adj (get_rc_x K_default false true xex) 2%N 6%N = Some (IE 2 2 0, Some true) /\
  adj (get_rc_x K_default false false xex) 2%N 6%N = None /\
  label (get_rc_x (KS true false false false false false false) false false xex) 4%N =
    Some (XN (Some 2%N) None None None None None (Some HH_FALLBACK)) /\
  label (get_rc_x (KS true false false false false false false) false false xex) 1%N =
    Some (XN (Some 70%N) None None None None None None).
Proof. split; [apply xex_wf|]. vm_compute. repeat split. Qed.

Example C02_default_emb_nonvacuous :
  get_rc_x K_default false false (emb ex_its) = gmap xn_of (fun e : iedge => (e, Some false)) (get_rc ex_its) /\
  length (gnodes (get_rc ex_its)) = 5%nat.
Proof. split; [apply rcx_default_emb|reflexivity]. Qed.

(** helpers: ex_its has the unchanged H-H bond 4-8: find_unequal_order_edges misses atom 8; remove_normal_edges keeps the 4
    changed bonds; n_knn = -1 on ex_its: the longest extension 1-5-6-7 has 4 atoms, so the context is the whole ITS *)
Example C02_helpers_nonvacuous :
  length (unequal_nodes ex_its) = 4%nat /\ length (gnodes (get_rc ex_its)) = 5%nat /\
  length (gedges (remove_normal ex_its)) = 4%nat /\
  lre ex_its (node_ids (get_rc ex_its)) = [1; 5; 6; 7]%N /\
  length (gnodes (extract_k_z ex_its (-1))) = 8%nat /\
  extract_k_z ex_its 2 = extract_k ex_its 2 /\
  map (fun p => length (gnodes (snd p))) (context_list [ex_its; get_rc ex_its; ex_its] 1) = [6; 5; 6]%nat.
Proof. vm_compute. repeat split. Qed.

(** the hypotheses of unequal_eq_rc are satisfiable with a non-empty centre: ex_its without the H-H bond *)
Definition ex_its2 : its := LG (gnodes ex_its) (removelast (gedges ex_its)).
Example C02_unequal_eq_nonvacuous :
  wf ex_its2 /\ std_consistent ex_its2 /\
  (forall u v x, In (u, v, x) (gedges ex_its2) -> is_hh ex_its2 u v = true -> e_std x <> 0) /\
  length (unequal_nodes ex_its2) = 4%nat.
Proof.
  split; [|split; [|split; [|reflexivity]]].
  - apply wfb_sound. reflexivity.
  - unfold std_consistent. apply (edges_all ex_its2 (fun e => e_std (snd e) =? e_G (snd e) - e_H (snd e)) (fun _ _ x => e_std x = e_G x - e_H x));
      [intros u v x; apply Z.eqb_eq|reflexivity].
  - apply (edges_all ex_its2 (fun e => negb (is_hh ex_its2 (fst (fst e)) (snd (fst e))) || negb (e_std (snd e) =? 0))
                     (fun u v x => is_hh ex_its2 u v = true -> e_std x <> 0)); [|reflexivity].
    intros u v x E Hh. cbn [fst snd] in E. rewrite Hh in E. apply negb_true_iff, Z.eqb_neq in E. exact E.
Qed.

(** an ignore_aromaticity ITS with a non-empty centre: 1.5 -> 1 is ignored, 2 -> 1 is kept *)
Definition ia_G2 : mgraph := LG (gnodes ia_G ++ [(3%N, GN 82%N false 0 0 None 3)]) [(1%N, 2%N, 3); (2%N, 3%N, 4)].
Definition ia_H2 : mgraph := LG (gnodes ia_H ++ [(3%N, GN 82%N false 1 0 None 3)]) [(1%N, 2%N, 2); (2%N, 3%N, 2)].
Example C02_ia_nonvacuous :
  ia_consistent (its_construct_ab true true ia_G2 ia_H2) /\
  map fst (gnodes (get_rc (its_construct_ab true true ia_G2 ia_H2))) = [2; 3]%N /\
  map fst (gnodes (get_rc (its_construct_ab false true ia_G2 ia_H2))) = [1; 2; 3]%N.
Proof. split; [apply its_construct_ia_consistent|]. vm_compute. split; reflexivity. Qed.
