(** C01 — proofs about model/C01_String.v, part 1: MolToGraph.transform and GraphToMol.graph_to_mol *)
From Coq Require Import List NArith ZArith Bool Lia Arith.
From SK Require Import lib.LGraph lib.C01_GraphLemmas model.C01_Model model.C02_Model model.C01_String model.C01_M2GIdx proof.C01_Proof.
Import ListNotations.
Local Open Scope Z_scope.

(** * upsert *)
Lemma upsert_fresh {V} k (v : V) l : ~ In k (map fst l) -> upsert k v l = l ++ [(k, v)].
Proof.
  induction l as [|[k' v'] r IH]; simpl; intros Hn; [reflexivity|].
  destruct (N.eqb_spec k k') as [->|Hne]; [exfalso; apply Hn; left; reflexivity|].
  rewrite IH; [reflexivity|]. intros F. apply Hn. right. exact F.
Qed.

(** * the node loop, for every flag combination *)
Lemma atom_id_mapped idx a : is_mapped a = true -> atom_id true idx a = ra_map a.
Proof. unfold atom_id, is_mapped. intros ->. reflexivity. Qed.

Definition gnode_of (drop use : bool) (ia : nat * ratom) : list (N * gnode) :=
  if kept_atom drop (snd ia) then [(atom_id use (fst ia) (snd ia), atom_node (snd ia))] else [].
Definition gix_of (drop use : bool) (ia : nat * ratom) : list (nat * N) :=
  if kept_atom drop (snd ia) then [(fst ia, atom_id use (fst ia) (snd ia))] else [].

Lemma m2g_atoms_general drop use (l : list (nat * ratom)) : forall ns ix,
  NoDup (map fst (ns ++ flat_map (gnode_of drop use) l)) ->
  fold_left (m2g_atom drop use) l (ns, ix) = (ns ++ flat_map (gnode_of drop use) l, ix ++ flat_map (gix_of drop use) l).
Proof.
  induction l as [|[i a] l IH]; intros ns ix Hnd.
  - cbn. rewrite !app_nil_r. reflexivity.
  - cbn [fold_left flat_map]. unfold m2g_atom at 2, gnode_of at 1, gix_of at 1, kept_atom. cbn [fst snd].
    unfold gnode_of at 1, kept_atom in Hnd. cbn [flat_map fst snd] in Hnd.
    destruct (drop && N.eqb (ra_map a) 0); cbn [negb app] in *.
    + apply IH. exact Hnd.
    + rewrite upsert_fresh.
      * rewrite IH; [rewrite <- !app_assoc; reflexivity|]. rewrite <- app_assoc. exact Hnd.
      * intros F. rewrite map_app in Hnd. cbn [app map fst] in Hnd. apply NoDup_remove_2 in Hnd. apply Hnd.
        rewrite in_app_iff. left. exact F.
Qed.

(** * the bond loop *)
Definition bond_edge (ix : list (nat * N)) (b : nat * nat * Z) : list (N * N * Z) :=
  match lookup_idx (fst (fst b)) ix, lookup_idx (snd (fst b)) ix with
  | Some u, Some v => [(u, v, snd b)]
  | _, _ => []
  end.

Lemma simple_app_inv {B} (l1 l2 : list (N * N * B)) : simple (l1 ++ l2) ->
  simple l1 /\ simple l2 /\ forall a b x, In (a, b, x) l2 -> find_edge a b l1 = None.
Proof.
  induction l1 as [|[[a b] x] r IH]; simpl; intros Hs.
  - split; [constructor|]. split; [exact Hs|]. reflexivity.
  - inversion Hs as [|? ? ? ? Hn Hs']; subst. destruct (IH Hs') as (S1 & S2 & Hf).
    rewrite find_edge_app in Hn. destruct (find_edge a b r) eqn:Fr; [discriminate|].
    split; [constructor; assumption|]. split; [exact S2|].
    intros u v y Iy. rewrite (Hf u v y Iy).
    destruct ((N.eqb a u && N.eqb b v) || (N.eqb a v && N.eqb b u)) eqn:E; [|reflexivity].
    exfalso. apply match_pair_spec in E. apply (fun I => @find_edge_not_none _ a b l2 y I Hn).
    destruct E as [[-> ->]|[-> ->]]; auto.
Qed.

Lemma m2g_bonds_closed ix (bs : list (nat * nat * Z)) (acc : list (N * N * Z)) :
  simple (acc ++ flat_map (bond_edge ix) bs) ->
  fold_left (m2g_bond ix) bs acc = acc ++ flat_map (bond_edge ix) bs.
Proof.
  revert acc. induction bs as [|[[i j] o] bs IH]; intros acc Hs; simpl.
  - rewrite app_nil_r. reflexivity.
  - simpl in Hs. unfold bond_edge at 1 in Hs. unfold bond_edge at 1. cbn [fst snd] in *.
    destruct (lookup_idx i ix) as [u|]; [|apply IH; exact Hs].
    destruct (lookup_idx j ix) as [v|]; [|apply IH; exact Hs].
    unfold upsert_edge.
    assert (find_edge u v acc = None) as ->.
    { destruct (simple_app_inv _ _ Hs) as (_ & _ & Hf). apply (Hf u v o). left. reflexivity. }
    rewrite IH.
    + rewrite <- app_assoc. reflexivity.
    + rewrite <- app_assoc. exact Hs.
Qed.

Theorem mol_to_graph_general drop use (m : rmol) : drop && negb use = false ->
  NoDup (map fst (gen_nodes drop use m)) -> simple (gen_bonds drop use m) ->
  mol_to_graph drop use m = Some (LG (gen_nodes drop use m) (gen_bonds drop use m)).
Proof.
  intros Ef Hn Hs. unfold mol_to_graph. rewrite Ef.
  rewrite (m2g_atoms_general drop use (enumerate (rm_atoms m)) [] []) by exact Hn. cbn [fst snd app].
  f_equal. f_equal. apply (m2g_bonds_closed _ _ []). exact Hs.
Qed.

(** the flags of rsmi_to_graph *)
Lemma gen_nodes_tt m : gen_nodes true true m = mapped_nodes m.
Proof.
  unfold gen_nodes, mapped_nodes, enumerate. generalize 0%nat. induction (rm_atoms m) as [|a l IH]; intros s; [reflexivity|].
  cbn [length seq combine flat_map fst snd]. rewrite IH. unfold kept_atom, is_mapped, atom_id. cbn [andb].
  destruct (N.eqb (ra_map a) 0); reflexivity.
Qed.

Lemma gen_ix_tt m : gen_ix true true m = mapped_ix m.
Proof.
  unfold gen_ix, mapped_ix. induction (enumerate (rm_atoms m)) as [|[i a] l IH]; [reflexivity|].
  cbn [flat_map fst snd]. rewrite IH. unfold kept_atom, is_mapped, atom_id. cbn [andb].
  destruct (N.eqb (ra_map a) 0); reflexivity.
Qed.

Lemma gen_bonds_tt m : gen_bonds true true m = mapped_bonds m.
Proof. unfold gen_bonds, mapped_bonds. rewrite gen_ix_tt. reflexivity. Qed.

(** * C01_mol_to_graph: closed form of MolToGraph.transform(drop_non_aam=True, use_index_as_atom_map=True) *)
Theorem mol_to_graph_closed (m : rmol) :
  NoDup (map fst (mapped_nodes m)) -> simple (mapped_bonds m) ->
  mol_to_graph true true m = Some (LG (mapped_nodes m) (mapped_bonds m)).
Proof. rewrite <- gen_nodes_tt, <- gen_bonds_tt. apply mol_to_graph_general. reflexivity. Qed.

(** the index table of a filtered enumeration: atom i is in it iff it is kept, with its id *)
Lemma lookup_enum (keep : ratom -> bool) (id : nat -> ratom -> N) (l : list ratom) i : forall s,
  lookup_idx i (flat_map (fun ia : nat * ratom => if keep (snd ia) then [(fst ia, id (fst ia) (snd ia))] else [])
                         (combine (seq s (length l)) l)) =
  if (i <? s)%nat then None
  else match nth_error l (i - s) with Some a => if keep a then Some (id i a) else None | None => None end.
Proof.
  induction l as [|a l IH]; intros s.
  - cbn [length seq combine flat_map lookup_idx]. destruct (i <? s)%nat; [reflexivity|]. destruct (i - s)%nat; reflexivity.
  - cbn [length seq combine flat_map fst snd]. destruct (Nat.ltb_spec i s) as [Hlt|Hge].
    + destruct (keep a); cbn [app lookup_idx].
      * destruct (Nat.eqb_spec i s); [lia|]. rewrite IH. destruct (Nat.ltb_spec i (S s)); [reflexivity|lia].
      * rewrite IH. destruct (Nat.ltb_spec i (S s)); [reflexivity|lia].
    + destruct (Nat.eq_dec i s) as [->|Hne].
      * rewrite Nat.sub_diag. cbn [nth_error]. destruct (keep a); cbn [app lookup_idx].
        -- rewrite Nat.eqb_refl. reflexivity.
        -- rewrite IH. destruct (Nat.ltb_spec s (S s)); [reflexivity|lia].
      * replace (i - s)%nat with (S (i - S s)) by lia. cbn [nth_error].
        destruct (keep a); cbn [app lookup_idx].
        -- destruct (Nat.eqb_spec i s); [lia|]. rewrite IH. destruct (Nat.ltb_spec i (S s)); [lia|reflexivity].
        -- rewrite IH. destruct (Nat.ltb_spec i (S s)); [lia|reflexivity].
Qed.

Theorem mapped_ix_spec (m : rmol) i :
  lookup_idx i (mapped_ix m) =
  match nth_error (rm_atoms m) i with
  | Some a => if is_mapped a then Some (ra_map a) else None
  | None => None
  end.
Proof.
  unfold mapped_ix, enumerate. rewrite (lookup_enum is_mapped (fun _ a => ra_map a) (rm_atoms m) i 0). cbn. rewrite Nat.sub_0_r. reflexivity.
Qed.

(** every node of the result carries atom_map = its id, the atom's labels, and comes from a mapped atom *)
Lemma mapped_nodes_in (m : rmol) n a : In (n, a) (mapped_nodes m) <->
  exists x, In x (rm_atoms m) /\ is_mapped x = true /\ n = ra_map x /\ a = atom_node x.
Proof.
  unfold mapped_nodes. rewrite in_flat_map. split.
  - intros (x & Ix & H). destruct (is_mapped x) eqn:M; [|destruct H]. destruct H as [E|[]]. inversion E; subst. eauto.
  - intros (x & Ix & M & -> & ->). exists x. split; [exact Ix|]. rewrite M. left. reflexivity.
Qed.

Theorem mol_to_graph_amap_id (m : rmol) g :
  NoDup (map fst (mapped_nodes m)) -> simple (mapped_bonds m) -> mol_to_graph true true m = Some g -> amap_id g.
Proof.
  intros Hn Hs E. rewrite (mol_to_graph_closed m Hn Hs) in E. inversion E; subst g. clear E.
  intros n a L. apply assoc_in in L. simpl in L. apply mapped_nodes_in in L.
  destruct L as (x & _ & _ & -> & ->). reflexivity.
Qed.

(** * GraphToMol.graph_to_mol *)
Lemma index_of_some n l i : index_of n l = Some i -> nth_error l i = Some n.
Proof.
  revert i. induction l as [|k r IH]; simpl; intros i; [discriminate|].
  destruct (N.eqb_spec n k) as [->|Hne].
  - intros [= <-]. reflexivity.
  - destruct (index_of n r) as [j|]; [|discriminate]. simpl. intros [= <-]. simpl. apply IH. reflexivity.
Qed.

Lemma index_of_in n l : In n l -> exists i, index_of n l = Some i.
Proof.
  induction l as [|k r IH]; simpl; [intros []|]. intros H.
  destruct (N.eqb_spec n k) as [->|Hne]; [eauto|].
  destruct H as [->|H]; [congruence|]. destruct (IH H) as (i & ->). simpl. eauto.
Qed.

Lemma w_bonds_spec ids es bs : w_bonds ids es = Some bs ->
  length bs = length es /\
  forall k u v o, nth_error es k = Some (u, v, o) ->
    exists i j, nth_error bs k = Some (i, j, bond_code o) /\ nth_error ids i = Some u /\ nth_error ids j = Some v.
Proof.
  revert bs. induction es as [|[[u v] o] r IH]; simpl; intros bs.
  - intros [= <-]. split; [reflexivity|]. intros [|k] ? ? ? F; discriminate.
  - destruct (index_of u ids) as [i|] eqn:Iu; [|discriminate].
    destruct (index_of v ids) as [j|] eqn:Iv; [|discriminate].
    destruct (w_bonds ids r) as [bs'|]; [|discriminate]. intros [= <-].
    destruct (IH bs' eq_refl) as (Hl & Hk). split; [simpl; rewrite Hl; reflexivity|].
    intros [|k] u' v' o' F; simpl in *.
    + inversion F; subst. exists i, j. repeat split; auto using index_of_some.
    + apply Hk. exact F.
Qed.

Lemma w_bonds_total ids es : (forall u v o, In (u, v, o) es -> In u ids /\ In v ids) -> w_bonds ids es <> None.
Proof.
  induction es as [|[[u v] o] r IH]; simpl; intros H; [discriminate|].
  destruct (H u v o (or_introl eq_refl)) as [Hu Hv].
  destruct (index_of_in _ _ Hu) as (i & ->), (index_of_in _ _ Hv) as (j & ->).
  destruct (w_bonds ids r) eqn:E; [discriminate|]. exfalso. apply IH; [|reflexivity]. intros; apply (H u0 v0 o0); right; assumption.
Qed.

(** C01_graph_to_wmol: one RWMol atom per node, in node order, with (element, charge, atom map, hcount as the explicit
    H count); one bond per edge, in edge order, joining the atoms of its two nodes, typed by [bond_code]; never fails on a
    well-formed graph *)
Theorem graph_to_wmol_spec (g : mgraph) :
  (wf g -> graph_to_wmol g <> None) /\
  forall w, graph_to_wmol g = Some w ->
    fst w = map (fun p => watom_of (snd p)) (gnodes g) /\
    length (snd w) = length (gedges g) /\
    forall k u v o, nth_error (gedges g) k = Some (u, v, o) ->
      exists i j, nth_error (snd w) k = Some (i, j, bond_code o) /\
                  nth_error (node_ids g) i = Some u /\ nth_error (node_ids g) j = Some v.
Proof.
  unfold graph_to_wmol. split.
  - intros W. destruct (w_bonds (node_ids g) (gedges g)) eqn:E; [discriminate|]. exfalso.
    apply (w_bonds_total (node_ids g) (gedges g)); [|exact E].
    intros u v o I. destruct (wf_edge_nodes W I) as (Hu & Hv & _). auto.
  - intros w. destruct (w_bonds (node_ids g) (gedges g)) as [bs|] eqn:E; [|discriminate]. intros [= <-].
    cbn [fst snd]. split; [reflexivity|]. apply w_bonds_spec. exact E.
Qed.

Theorem mol_to_graph_full (m : rmol) :
  NoDup (map fst (mapped_nodes m)) -> simple (mapped_bonds m) ->
  mol_to_graph true true m = Some (LG (mapped_nodes m) (mapped_bonds m)) /\
  amap_id (LG (mapped_nodes m) (mapped_bonds m)) /\
  (forall n a, In (n, a) (mapped_nodes m) <->
     exists x, In x (rm_atoms m) /\ is_mapped x = true /\ n = ra_map x /\ a = atom_node x) /\
  (forall i, lookup_idx i (mapped_ix m) =
     match nth_error (rm_atoms m) i with Some a => if is_mapped a then Some (ra_map a) else None | None => None end).
Proof.
  intros Hn Hs. split; [exact (mol_to_graph_closed m Hn Hs)|]. split.
  - exact (mol_to_graph_amap_id m _ Hn Hs (mol_to_graph_closed m Hn Hs)).
  - split; [exact (mapped_nodes_in m)|exact (mapped_ix_spec m)].
Qed.

(** rsmi_to_its with a caller's node_attrs that names all six attributes (any order: the selection is a set) is
    rsmi_to_its with the defaults; with fewer names the unselected attributes read as the core defaults in typesGH *)
Theorem rsmi_to_its_sel_spec (s : asel) (mr mp : rmol) :
  rsmi_to_its_sel all_sel mr mp = rsmi_to_its_m mr mp /\
  forall g h J, rsmi_to_graph_m mr mp = Some (g, h) -> rsmi_to_its_sel s mr mp = Some J ->
    forall n b, label J n = Some b ->
      i_G b = side_tuple (fill_graph s g) n /\ i_H b = side_tuple (fill_graph s h) n /\
      (forall a, label g n = Some a -> a_el (i_G b) = (if p_el s then g_el a else EL_STAR) /\
                                       a_hc (i_G b) = (if p_hc s then g_hc a else 0) /\
                                       a_ch (i_G b) = (if p_ch s then g_ch a else 0) /\
                                       a_arom (i_G b) = (if p_ar s then g_arom a else false)).
Proof.
  split.
  - unfold rsmi_to_its_sel, rsmi_to_its_m. destruct (rsmi_to_graph_m mr mp) as [[g h]|]; [|reflexivity].
    assert (forall x : mgraph, fill_graph all_sel x = x) as E.
    { intros [ns es]. unfold fill_graph. cbn [gnodes gedges]. f_equal. rewrite <- (map_id ns) at 2. apply map_ext.
      intros [k [e ar hc ch nb am]]. reflexivity. }
    rewrite !E. reflexivity.
  - intros g h J Eg EJ n b L. unfold rsmi_to_its_sel in EJ. rewrite Eg in EJ. inversion EJ; subst J. clear EJ.
    destruct (its_label_types _ _ n b L) as (E1 & E2 & _). split; [exact E1|]. split; [exact E2|].
    intros a La. rewrite E1. unfold side_tuple, fill_graph, label. cbn [gnodes].
    rewrite (assoc_map_val (fun _ (x : gnode) => fill_sel s x)). fold (label g n). rewrite La. cbn. auto.
Qed.
