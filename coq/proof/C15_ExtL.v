(** C15 — paths: the max_paths cut, and the order among answers of
    equal length (lexicographic by species label, as a consequence of extending
    the queue entries in order by sorted neighbours). *)
From stdpp Require Import gmap strings sets sorting.
From SK Require Import model.C15_Model model.C15_Ext proof.C15_Proof proof.C15_ExtQ.
Local Open Scope string_scope.

(** max_paths only cuts the answer list: the first max(1, max_paths) answers
    (the loop appends before it tests the bound, so a bound <= 0 still yields one) *)
Lemma paths_max_paths s a b h m ps :
  paths s a b h None = inr ps → paths s a b h (Some m) = inr (take (Z.to_nat (Z.max 1 m)) ps).
Proof.
  unfold paths. destruct (decide _); [|done]. destruct (bfs _ _ _ _); [|done]. by intros [= <-].
Qed.

(** order on queue entries (reversed paths of equal length): compare the
    parents first, then the last species — i.e. the forward paths lexicographically *)
Definition slt (a b : string) : Prop := sle15 a b ∧ a ≠ b.
Fixpoint rlex (rp rq : list string) : Prop :=
  match rp, rq with
  | n :: p, m :: q => rlex p q ∨ (p = q ∧ slt n m)
  | _, _ => False
  end.

Lemma ssort_strict l : NoDup l → StronglySorted slt (ssort l).
Proof.
  intros Hnd. pose proof (ssort_sorted l) as Hs. pose proof (ssort_NoDup l Hnd) as Hn.
  induction Hs as [|x xs Hs IH Hall]; [constructor|]. apply NoDup_cons in Hn as [Hx Hn].
  constructor; [by apply IH|]. rewrite Forall_forall in *. intros y Hy. split; [by apply Hall|]. intros ->. done.
Qed.

Lemma StronglySorted_filter {A} (R : relation A) (P : A → Prop) `{∀ x, Decision (P x)} l :
  StronglySorted R l → StronglySorted R (filter P l).
Proof.
  induction 1 as [|x l Hs IH Hall]; [constructor|]. rewrite filter_cons. destruct (decide (P x)); [|done].
  constructor; [done|]. rewrite Forall_forall in *. intros y [_ Hy]%elem_of_list_filter. by apply Hall.
Qed.

Lemma extend_sorted s rp nxt :
  Inv s → extend s rp = Some nxt →
  StronglySorted rlex nxt ∧ Forall (λ c, ∃ n, c = n :: rp) nxt.
Proof.
  intros HI. unfold extend. destruct rp as [|last rp]; [intros [= <-]; split; constructor|].
  destruct (neighbors s last) as [er|N]; [done|]. intros [= <-]. split.
  - assert (Hs : StronglySorted slt (filter (λ n, n ∉ last :: rp) (ssort (elements N))))
      by (apply StronglySorted_filter, ssort_strict, NoDup_elements).
    induction Hs as [|x xs Hs IH Hall]; [constructor|]. cbn. constructor; [done|].
    apply Forall_fmap. eapply Forall_impl; [exact Hall|]. intros y Hy. cbn. right. done.
  - apply Forall_fmap, Forall_forall. intros n _. cbn. eauto.
Qed.

Lemma StronglySorted_app_2 {A} (R : relation A) l1 l2 :
  StronglySorted R l1 → StronglySorted R l2 → Forall (λ x, Forall (R x) l2) l1 → StronglySorted R (l1 ++ l2).
Proof.
  induction 1 as [|x l1 Hs IH Hall]; intros H2 Hc; [done|]. cbn.
  apply Forall_cons in Hc as [Hx Hc]. constructor; [by apply IH|]. by apply Forall_app.
Qed.

(** children of an ordered level are ordered *)
Lemma children_sorted s level nxt :
  Inv s → StronglySorted rlex level → mapM (extend s) level = Some nxt →
  StronglySorted rlex (concat nxt).
Proof.
  intros HI Hs Hm. apply mapM_Some in Hm. induction Hm as [|rp c level cs Hc Hcs IH]; [cbn; constructor|].
  apply StronglySorted_inv in Hs as [Hs Hall]. cbn.
  destruct (extend_sorted s rp c HI Hc) as [Hcs1 Hform]. specialize (IH Hs).
  (* append: everything in [c] is below everything in [concat cs] *)
  assert (Hcross : Forall (λ x, Forall (rlex x) (concat cs)) c).
  { rewrite Forall_forall. intros x Hx. rewrite Forall_forall in Hform. destruct (Hform x Hx) as [n ->].
    apply Forall_concat. rewrite Forall_forall. intros l Hl.
    apply elem_of_list_lookup in Hl as [i Hi].
    destruct (Forall2_lookup_r _ _ _ _ _ Hcs Hi) as (rq & Hrq & Hext).
    destruct (extend_sorted s rq l HI Hext) as [_ Hform2].
    eapply Forall_impl; [exact Hform2|]. intros y [m ->]. cbn. left.
    rewrite Forall_forall in Hall. apply Hall. by eapply elem_of_list_lookup_2. }
  by apply StronglySorted_app_2.
Qed.

Definition porder (rp rq : list string) : Prop :=
  (length rp < length rq)%nat ∨ (length rp = length rq ∧ rlex rp rq).

Lemma StronglySorted_weaken {A} (R R' : relation A) (P : A → Prop) l :
  StronglySorted R l → Forall P l → (∀ x y, P x → P y → R x y → R' x y) → StronglySorted R' l.
Proof.
  induction 1 as [|x l Hs IH Hall]; intros HP HR; [constructor|].
  apply Forall_cons in HP as [Hx HP]. constructor; [by apply IH|].
  rewrite Forall_forall in *. intros y Hy. apply HR; [done|by apply HP|by apply Hall].
Qed.

Lemma bfs_ordered s src tgt : ∀ k level d out,
  Inv s → Forall (λ rp, rpath s src rp ∧ length rp = d) level → StronglySorted rlex level →
  bfs k s tgt level = Some out → StronglySorted porder out.
Proof.
  induction k as [|k IH]; intros level d out HI Hl Hsl; cbn [bfs]; [intros [= <-]; constructor|].
  destruct (mapM _ _) as [nxt|] eqn:Hm; [|done].
  destruct (bfs k s tgt (concat nxt)) as [rest|] eqn:Hb; [|done]. intros [= <-].
  assert (Hnext : Forall (λ rp, rpath s src rp ∧ length rp = S d) (concat nxt)).
  { apply Forall_concat. pose proof Hm as Hm'. apply mapM_Some in Hm'. rewrite Forall_forall. intros l Hin.
    apply elem_of_list_lookup in Hin as [i Hi].
    destruct (Forall2_lookup_r _ _ _ _ _ Hm' Hi) as (rp & Hrp & Hext).
    apply elem_of_list_lookup_2, elem_of_list_filter in Hrp as [_ Hrp].
    rewrite Forall_forall in Hl. destruct (Hl rp Hrp) as [Hr <-].
    apply (extend_sound s src rp l HI Hr Hext). }
  assert (Hsn : StronglySorted rlex (concat nxt)).
  { eapply children_sorted; [done| |exact Hm]. by apply StronglySorted_filter. }
  pose proof (bfs_sound s src tgt k _ (S d) rest HI Hnext Hb) as Hrest.
  pose proof (IH _ (S d) rest HI Hnext Hsn Hb) as Hsorted.
  assert (Hlen : Forall (λ rp, length rp = d) (filter (λ rp, head rp = Some tgt) level)).
  { apply Forall_forall. intros rp [_ Hin]%elem_of_list_filter. rewrite Forall_forall in Hl. by destruct (Hl rp Hin). }
  apply StronglySorted_app_2; [|done|].
  - eapply (StronglySorted_weaken rlex porder (λ rp, length rp = d)); [by apply StronglySorted_filter|done|].
    intros x y Hx Hy Hxy. right. split; [congruence|done].
  - eapply Forall_impl; [exact Hlen|]. intros x Hx. cbn in Hx.
    eapply Forall_impl; [exact Hrest|]. intros y Hy. cbn in Hy. destruct Hy as (_ & _ & Hy). left. lia.
Qed.

(** the answers of paths, read forwards, in their order: shorter first, equal
    length by [rlex] of the reversed paths *)
Lemma paths_ordered s a b h ps :
  Inv s → paths s a b h None = inr ps →
  StronglySorted (λ p q, porder (reverse p) (reverse q)) ps.
Proof.
  intros HI. unfold paths. destruct (decide _) as [[Ha Hb]|]; [|done].
  destruct (bfs _ s b [[a]]) as [out|] eqn:Hbfs; [|done]. intros [= <-].
  eapply (bfs_ordered s a b _ _ 1) in Hbfs; [|done|by repeat constructor|by repeat constructor].
  induction Hbfs as [|rp l Hs IH Hall]; [constructor|]. cbn. constructor; [done|].
  apply Forall_fmap. eapply Forall_impl; [exact Hall|]. intros q Hq. cbn. by rewrite !reverse_involutive.
Qed.

(** what [rlex] on reversed paths means for the paths themselves: a common
    prefix, then a strictly smaller species label *)
Lemma rlex_decomp : ∀ rp rq, rlex rp rq →
  ∃ suf n m t1 t2, rp = (t1 ++ n :: suf)%list ∧ rq = (t2 ++ m :: suf)%list ∧ slt n m ∧ length t1 = length t2.
Proof.
  induction rp as [|n p IH]; intros [|m q]; cbn; try done. intros [H|[-> H]].
  - destruct (IH q H) as (suf & n' & m' & t1 & t2 & -> & -> & Hs & Hl).
    exists suf, n', m', (n :: t1), (m :: t2). split_and!; [done..|]. cbn. by rewrite Hl.
  - exists q, n, m, [], []. done.
Qed.

Lemma rlex_forward p q :
  rlex (reverse p) (reverse q) →
  ∃ pre x y p' q', p = (pre ++ x :: p')%list ∧ q = (pre ++ y :: q')%list ∧ String.leb x y = true ∧ x ≠ y ∧ length p' = length q'.
Proof.
  intros (suf & n & m & t1 & t2 & H1 & H2 & [Hle Hne] & Hl)%rlex_decomp.
  exists (reverse suf), n, m, (reverse t1), (reverse t2).
  apply (f_equal reverse) in H1, H2. rewrite reverse_involutive in H1, H2.
  rewrite reverse_app, reverse_cons, <- (assoc_L (++)) in H1, H2. cbn in H1, H2.
  split_and!; [done..|]. by rewrite !reverse_length.
Qed.

(** the order of the answers, stated on the paths as returned: shorter first;
    equal length: lexicographic by species label (first difference decides) *)
Lemma paths_order_forward s a b h ps :
  Inv s → paths s a b h None = inr ps →
  StronglySorted (λ p q, (length p < length q)%nat ∨
                         (length p = length q ∧
                          ∃ pre x y p' q', p = (pre ++ x :: p')%list ∧ q = (pre ++ y :: q')%list ∧
                                           String.leb x y = true ∧ x ≠ y)) ps.
Proof.
  intros HI Hp. pose proof (paths_ordered s a b h ps HI Hp) as Hs.
  eapply (StronglySorted_weaken _ _ (λ _, True)); [exact Hs|by apply Forall_forall|].
  intros p q _ _ [Hlt|[Hl Hr]]; rewrite !reverse_length in *; [by left|right]. split; [done|].
  destruct (rlex_forward p q Hr) as (pre & x & y & p' & q' & ? & ? & ? & ? & _). eauto 10.
Qed.

(** non-vacuity: three answers in the proved order *)
Definition exl_net : net :=
  getn (nets (fold_left (λ w o, (step2 w o).1.1)
    [ OAddItems 0 [ILabel "A"] [ILabel "C"; ILabel "B"; ILabel "D"] "" None;
      OAddItems 0 [ILabel "B"] [ILabel "D"; ILabel "E"] "" None;
      OAddItems 0 [ILabel "C"] [ILabel "D"] "" None;
      OAddItems 0 [ILabel "E"] [ILabel "D"] "" None ] (init_world2 1 0))) 0.
Local Instance qerr_eq_dec_l : EqDecision qerr.
Proof. solve_decision. Defined.
Example C15_ext_paths_order_nonvacuous :
  paths exl_net "A" "D" 4 None = inr [["A"; "D"]; ["A"; "B"; "D"]; ["A"; "C"; "D"]; ["A"; "B"; "E"; "D"]] ∧
  paths exl_net "A" "D" 4 (Some 2%Z) = inr [["A"; "D"]; ["A"; "B"; "D"]] ∧
  paths exl_net "A" "D" 4 (Some (-1)%Z) = inr [["A"; "D"]].
Proof. split_and!; apply (bool_decide_unpack _); vm_compute; exact Logic.I. Qed.
