(** C09 — proofs about the numbering of CanonRSMI.expand_aam and the pair enumeration of
    AAMValidator.check_equivariant_graph (model/C09_Strings.v). *)
From Coq Require Import List NArith ZArith Bool Arith Lia Permutation.
From SK Require Import lib.StrJoin lib.LGraph model.C01_Model model.C02_Model model.C09_Model model.C09_Strings.
From SK Require model.C01_Opts proof.C09_Main proof.C09_Equiv proof.C09_ValidRC proof.C09_Indep proof.C09_Canon proof.C09_Lists proof.C08_Sort lib.C01_GraphLemmas proof.C09_Str proof.C09_Balance.
Import ListNotations.
Local Open Scope Z_scope.

(** * expand_aam *)
Definition nz (m : Z) : bool := negb (m =? 0).
Definition zeros (l : list Z) : Z := Z.of_nat (length (filter (fun m => m =? 0) l)).

Lemma zeros_nonneg l : 0 <= zeros l.
Proof. unfold zeros. lia. Qed.
Lemma zeros_cons m l : zeros (m :: l) = (if m =? 0 then 1 else 0) + zeros l.
Proof. unfold zeros. simpl. destruct (m =? 0); simpl length; lia. Qed.

Lemma assign_length : forall l n, length (assign n l) = length l.
Proof. induction l as [|m l IH]; intros n; simpl; auto. destruct (m =? 0); simpl; rewrite IH; auto. Qed.

Lemma assign_app : forall l1 l2 n, assign n (l1 ++ l2) = assign n l1 ++ assign (n + zeros l1) l2.
Proof.
  induction l1 as [|m l1 IH]; intros l2 n; simpl.
  - f_equal. unfold zeros. simpl. lia.
  - rewrite zeros_cons. cbn [app assign]. destruct (m =? 0); cbn [app]; rewrite IH.
    + replace (n + (1 + zeros l1)) with (n + 1 + zeros l1) by lia. reflexivity.
    + replace (n + (0 + zeros l1)) with (n + zeros l1) by lia. reflexivity.
Qed.

(** every number of the result is a kept (non-zero) input number or a fresh number >= next *)
Lemma assign_in : forall l n x, In x (assign n l) -> (In x l /\ x <> 0) \/ (n <= x < n + zeros l).
Proof.
  induction l as [|m l IH]; intros n x I; simpl in I; [contradiction|].
  rewrite zeros_cons. pose proof (zeros_nonneg l) as Z0.
  destruct (Z.eqb_spec m 0) as [->|Hm]; destruct I as [<-|I].
  - right. lia.
  - apply IH in I. destruct I as [[I Hx]|I]; [left; split; [right|]; auto|right; lia].
  - left. split; [left|]; auto.
  - apply IH in I. destruct I as [[I Hx]|I]; [left; split; [right|]; auto|right; lia].
Qed.

Lemma assign_keep : forall l k x, x <> 0 -> In x l -> In x (assign k l).
Proof.
  induction l as [|m l IH]; intros k x Hx I; [contradiction|]. cbn [assign]. destruct I as [<-|I].
  - destruct (Z.eqb_spec m 0); [contradiction|left; reflexivity].
  - destruct (Z.eqb_spec m 0); right; apply IH; auto.
Qed.

(** mapped atoms keep their number, position by position; unmapped atoms get the numbers next, next+1, ... in order *)
Lemma assign_nth : forall l n i, (i < length l)%nat ->
  nth i (assign n l) 0 = if nth i l 0 =? 0 then n + zeros (firstn i l) else nth i l 0.
Proof.
  induction l as [|m l IH]; intros n i Hi; [simpl in Hi; lia|].
  destruct i as [|i].
  - cbn [nth firstn assign]. destruct (Z.eqb_spec m 0) as [->|Hm]; cbn [nth].
    + change (zeros []) with 0. lia.
    + reflexivity.
  - cbn [length] in Hi. cbn [nth firstn assign]. rewrite zeros_cons.
    destruct (Z.eqb_spec m 0) as [->|Hm]; cbn [nth]; rewrite IH by lia; destruct (nth i l 0 =? 0); lia.
Qed.

Lemma fold_max_ge : forall l a x, (x = a \/ In x l) -> x <= fold_left Z.max l a.
Proof.
  induction l as [|y l IH]; intros a x H; simpl.
  - destruct H as [->|[]]. lia.
  - destruct H as [->|[<-|H]].
    + transitivity (Z.max a y); [lia|]. apply IH. left; reflexivity.
    + transitivity (Z.max a y); [lia|]. apply IH. left; reflexivity.
    + apply IH. right; exact H.
Qed.
Lemma next_id_gt maps m : In m maps -> m < next_id maps.
Proof.
  intros I. unfold next_id. destruct (Z.ltb_spec 0 m) as [Hp|Hn].
  - assert (m <= fold_left Z.max (filter (fun m => 0 <? m) maps) 0); [|lia].
    apply fold_max_ge. right. apply filter_In. split; auto. apply Z.ltb_lt; auto.
  - assert (0 <= fold_left Z.max (filter (fun m => 0 <? m) maps) 0); [|lia]. apply fold_max_ge. left; reflexivity.
Qed.
Lemma next_id_pos maps : 0 < next_id maps.
Proof.
  unfold next_id. assert (0 <= fold_left Z.max (filter (fun m => 0 <? m) maps) 0); [|lia]. apply fold_max_ge. left; reflexivity.
Qed.

Lemma zeros_firstn_lt : forall l i j, (i < j <= length l)%nat -> nth i l 0 = 0 -> zeros (firstn i l) < zeros (firstn j l).
Proof.
  induction l as [|m l IH]; intros i j Hij Hi; [simpl in Hij; lia|].
  destruct j as [|j]; [lia|]. cbn [length] in Hij. destruct i as [|i]; cbn [firstn nth] in *.
  - subst m. rewrite zeros_cons, Z.eqb_refl. pose proof (zeros_nonneg (firstn j l)). change (zeros []) with 0. lia.
  - rewrite !zeros_cons. assert (zeros (firstn i l) < zeros (firstn j l)) by (apply IH; [lia|exact Hi]). lia.
Qed.

(** position-wise specification of expand_aam's numbering *)
Theorem expand_numbers_spec maps :
  let out := expand_numbers maps in
  length out = length maps /\
  (forall i, (i < length maps)%nat -> nth i maps 0 <> 0 -> nth i out 0 = nth i maps 0) /\
  (forall i, (i < length maps)%nat -> nth i maps 0 = 0 ->
     nth i out 0 = next_id maps + zeros (firstn i maps) /\ forall m, In m maps -> m < nth i out 0) /\
  (forall i j, (i < j < length maps)%nat -> nth i maps 0 = 0 -> nth j maps 0 = 0 -> nth i out 0 < nth j out 0) /\
  (forall x, In x out -> (forall m, In m maps -> 0 <= m) -> 0 < x).
Proof.
  cbv zeta. unfold expand_numbers. split; [apply assign_length|]. split; [|split; [|split]].
  - intros i Hi Hn. rewrite assign_nth by auto. destruct (Z.eqb_spec (nth i maps 0) 0); [contradiction|reflexivity].
  - intros i Hi Hz. rewrite assign_nth by auto. rewrite Hz. split; [reflexivity|].
    intros m I. simpl. pose proof (next_id_gt maps m I). pose proof (zeros_nonneg (firstn i maps)). lia.
  - intros i j Hij Hi Hj. rewrite !assign_nth by lia. rewrite Hi, Hj. simpl.
    assert (zeros (firstn i maps) < zeros (firstn j maps)) by (apply zeros_firstn_lt; [lia|exact Hi]). lia.
  - intros x I Hpos. apply assign_in in I. destruct I as [[I Hx]|I].
    + specialize (Hpos x I). lia.
    + pose proof (next_id_pos maps). lia.
Qed.

Lemma assign_NoDup : forall l n, (forall m, In m l -> m < n) -> NoDup (filter nz l) -> NoDup (assign n l).
Proof.
  induction l as [|m l IH]; intros n Hlt Hnd; simpl; [constructor|].
  unfold nz in Hnd. simpl in Hnd. destruct (Z.eqb_spec m 0) as [->|Hm]; simpl in Hnd.
  - constructor.
    + intro I. apply assign_in in I. destruct I as [[I _]|I]; [|lia]. specialize (Hlt n (or_intror I)). lia.
    + apply IH; auto. intros x I. specialize (Hlt x (or_intror I)). lia.
  - inversion Hnd as [|? ? Hni Hnd']; subst. constructor.
    + intro I. apply assign_in in I. destruct I as [[I Hx]|I].
      * apply Hni. apply filter_In. split; auto. unfold nz. destruct (Z.eqb_spec m 0); [contradiction|reflexivity].
      * specialize (Hlt m (or_introl eq_refl)). lia.
    + apply IH; auto. intros x I. apply Hlt. right; exact I.
Qed.

(** per side: after expand_aam every atom of a side whose mapped atoms had pairwise different numbers has its own
    positive number (so rsmi_to_graph, which uses the map number as node id, merges nothing), and the two sides share
    exactly the numbers they shared before: an unmapped atom never gets a partner. *)
Theorem expand_sides_spec rmaps pmaps R P :
  (forall m, In m (rmaps ++ pmaps) -> 0 <= m) ->
  expand_sides (length rmaps) (rmaps ++ pmaps) = (R, P) ->
  length R = length rmaps /\ length P = length pmaps /\
  (NoDup (filter nz rmaps) -> NoDup R) /\ (NoDup (filter nz pmaps) -> NoDup P) /\
  (forall x, In x R \/ In x P -> 0 < x) /\
  (forall x, In x R -> In x P -> In x rmaps /\ In x pmaps /\ x <> 0) /\
  (forall x, x <> 0 -> In x rmaps -> In x R) /\ (forall x, x <> 0 -> In x pmaps -> In x P).
Proof.
  intros Hpos E. unfold expand_sides, expand_numbers in E. rewrite assign_app in E.
  rewrite <- (assign_length rmaps (next_id (rmaps ++ pmaps))) in E at 1 2.
  rewrite firstn_app, skipn_app, Nat.sub_diag, firstn_all, skipn_all in E. simpl in E. rewrite app_nil_r in E.
  injection E as <- <-. set (n := next_id (rmaps ++ pmaps)).
  assert (Hn : forall m, In m (rmaps ++ pmaps) -> m < n) by (intros; apply next_id_gt; auto).
  pose proof (zeros_nonneg rmaps) as Z0.
  split; [apply assign_length|]. split; [apply assign_length|].
  split; [intros Hnd; apply assign_NoDup; auto; intros m I; apply Hn, in_or_app; auto|].
  split; [intros Hnd; apply assign_NoDup; auto; intros m I; specialize (Hn m (in_or_app _ _ _ (or_intror I))); lia|].
  split.
  { pose proof (next_id_pos (rmaps ++ pmaps)) as Np. fold n in Np.
    intros x [I|I]; apply assign_in in I; destruct I as [[I Hx]|I]; try lia.
    - specialize (Hpos x (in_or_app _ _ _ (or_introl I))). lia.
    - specialize (Hpos x (in_or_app _ _ _ (or_intror I))). lia. }
  split.
  { (* a fresh number of one side is above every input number and outside the fresh range of the other side *)
    intros x IR IP. apply assign_in in IR, IP. destruct IR as [[I Hx]|I], IP as [[J Hx']|J]; auto; try lia.
    - specialize (Hn x (in_or_app _ _ _ (or_introl I))). lia.
    - specialize (Hn x (in_or_app _ _ _ (or_intror J))). lia. }
  split; intros x Hx I; apply assign_keep; auto.
Qed.

(** * check_equivariant_graph *)
Definition its0 : its := LG [] [].

Lemma pairs_from_spec : forall rest i j g a b,
  In (a, b) (pairs_from i j g rest) <->
  a = i /\ exists k, b = (j + k)%nat /\ (k < length rest)%nat /\ is_isomorphic g (nth k rest its0) = true.
Proof.
  induction rest as [|h r IH]; intros i j g a b; simpl.
  - split; [intros []|intros (_ & k & _ & Hk & _); lia].
  - rewrite in_app_iff, IH. split.
    + intros [I|(-> & k & -> & Hk & Hi)].
      * destruct (is_isomorphic g h) eqn:E; [|contradiction]. destruct I as [I|[]]. injection I as <- <-.
        split; auto. exists 0%nat. repeat split; auto; lia.
      * split; auto. exists (S k). repeat split; auto; lia.
    + intros (-> & k & -> & Hk & Hi). destruct k as [|k].
      * left. rewrite Hi. left. f_equal. lia.
      * right. split; auto. exists k. repeat split; auto; lia.
Qed.

Lemma equiv_pairs_from_spec : forall gs i a b,
  In (a, b) (equiv_pairs_from i gs) <->
  exists k l, a = (i + k)%nat /\ b = (i + l)%nat /\ (k < l < length gs)%nat /\
              is_isomorphic (nth k gs its0) (nth l gs its0) = true.
Proof.
  induction gs as [|g r IH]; intros i a b; simpl.
  - split; [intros []|intros (k & l & _ & _ & H & _); lia].
  - rewrite in_app_iff, pairs_from_spec, IH. split.
    + intros [(-> & k & -> & Hk & Hi)|(k & l & -> & -> & Hkl & Hi)].
      * exists 0%nat, (S k). repeat split; auto; lia.
      * exists (S k), (S l). repeat split; auto; lia.
    + intros (k & l & -> & -> & Hkl & Hi). destruct k as [|k].
      * left. split; [lia|]. destruct l as [|l]; [lia|]. exists l. repeat split; auto; lia.
      * right. destruct l as [|l]; [lia|]. exists k, l. repeat split; auto; lia.
Qed.

(** the pairs are exactly the index pairs i < j of isomorphic graphs, and the count is their number *)
Theorem check_equivariant_graph_spec gs :
  (forall a b, In (a, b) (fst (check_equivariant_graph gs)) <->
     (a < b < length gs)%nat /\ is_isomorphic (nth a gs its0) (nth b gs its0) = true) /\
  snd (check_equivariant_graph gs) = length (fst (check_equivariant_graph gs)).
Proof.
  split; [|reflexivity]. intros a b. unfold check_equivariant_graph. cbn [fst]. rewrite equiv_pairs_from_spec. split.
  - intros (k & l & -> & -> & H & Hi). simpl. auto.
  - intros (H & Hi). exists a, b. auto.
Qed.

(** smiles_check's "count == 1" on two graphs is the isomorphism test the validator theorems talk about *)
Theorem smiles_check_count_eq g1 g2 : smiles_check_count g1 g2 = is_isomorphic g1 g2.
Proof.
  unfold smiles_check_count, check_equivariant_graph. cbn [snd equiv_pairs_from pairs_from].
  destruct (is_isomorphic g1 g2); reflexivity.
Qed.
Corollary smiles_check_rc_count G1 H1 G2 H2 :
  smiles_check_rc G1 H1 G2 H2 = smiles_check_count (get_rc (its_construct G1 H1)) (get_rc (its_construct G2 H2)) /\
  smiles_check_its G1 H1 G2 H2 = smiles_check_count (its_construct G1 H1) (its_construct G2 H2).
Proof. rewrite !smiles_check_count_eq. split; reflexivity. Qed.

(** option handling of smiles_check: the method string selects RC exactly when its upper-case form is "RC"; an unreadable
    string gives False *)
Theorem smiles_check_full_spec (m : str) (ia : bool) (G1 H1 G2 H2 : mgraph) :
  smiles_check_full m ia (Some (G1, H1)) (Some (G2, H2)) =
  (if is_rc m then smiles_check_rc_o ia G1 H1 G2 H2 else smiles_check_its_o ia G1 H1 G2 H2) /\
  (forall r, smiles_check_full m ia None r = false /\ smiles_check_full m ia r None = false).
Proof.
  split.
  - unfold smiles_check_full. rewrite !smiles_check_count_eq. reflexivity.
  - intros r. split; [reflexivity|]. destruct r as [[? ?]|]; reflexivity.
Qed.
Example ex_is_rc : is_rc [82; 67]%N = true /\ is_rc [114; 99]%N = true /\ is_rc [82; 99]%N = true /\
                   is_rc [73; 84; 83]%N = false /\ is_rc [102; 111; 111]%N = false /\ is_rc []%N = false /\ is_rc [82; 67; 32]%N = false.
Proof. vm_compute. repeat split. Qed.

(** FixAAM.fix_aam_rsmi is a renumbering: the validator accepts (fix_aam r, r) by both methods *)
Theorem fix_aam_accepted (G H : mgraph) : wf G -> wf H ->
  smiles_check_its (fix_aam_graph G) (fix_aam_graph H) G H = true /\
  smiles_check_rc (fix_aam_graph G) (fix_aam_graph H) G H = true.
Proof.
  intros WG WH. assert (Sinj : forall a b, N.succ a = N.succ b -> a = b) by (intros a b E; lia).
  split.
  - apply (proj2 (proj2 (C09_Main.validator_renumbering N.succ G H Sinj WG WH))); apply C09_Equiv.relabelled_exact.
  - apply (C09_ValidRC.validator_renumbering_rc N.succ G H _ _ Sinj WG WH); apply C09_Equiv.relabelled_exact.
Qed.

(** NormalizeAAM.reset_indices_and_atom_map: ids 1..n in node order, atom_map = id, and the result is the graph renamed
    by an injective map (so every renumbering theorem of the validator applies to it) *)
Theorem reset_indices_by_spec (order : list N) (G : mgraph) : wf G -> NoDup order -> (forall n, In n order <-> In n (node_ids G)) ->
  Permutation (node_ids (reset_indices_by order G)) (map N.of_nat (seq 1 (length (gnodes G)))) /\
  amap_id (reset_indices_by order G) /\
  exists f, (forall a b, f a = f b -> a = b) /\ (forall n, In n order -> f n = sigma_of order n) /\
            reset_indices_by order G = set_amap (relabel f G).
Proof.
  intros WG Ond Oin. pose proof WG as (Hnd & W2 & _).
  assert (P : Permutation (node_ids G) order) by (apply NoDup_Permutation; auto; intros x; symmetry; apply Oin).
  split; [|split].
  - unfold reset_indices_by. rewrite C09_Equiv.node_ids_set_amap. rewrite (C01_GraphLemmas.node_ids_relabel (sigma_of order) G).
    eapply Permutation_trans; [apply Permutation_map; exact P|].
    unfold sigma_of. rewrite (C08_Sort.mapping_of_map order Ond). rewrite <- (Permutation_length P). unfold node_ids. rewrite map_length.
    apply Permutation_refl.
  - apply C09_Indep.amap_id_set_amap.
  - exists (C09_Canon.tau order []). split; [intros a b; apply C09_Canon.tau_injective|]. split; [intros n I; apply C09_Canon.tau_sigma; exact I|].
    unfold reset_indices_by. f_equal. apply (C09_Lists.relabel_agree _ _ G WG).
    intros n I. symmetry. apply C09_Canon.tau_sigma. apply Oin. exact I.
Qed.
Theorem reset_indices_spec (G : mgraph) : wf G ->
  node_ids (reset_indices G) = map N.of_nat (seq 1 (length (gnodes G))) /\ amap_id (reset_indices G) /\
  exists f, (forall a b, f a = f b -> a = b) /\ reset_indices G = set_amap (relabel f G).
Proof.
  intros WG. pose proof WG as (Hnd & W2 & _). split; [|split].
  - unfold reset_indices, reset_indices_by. rewrite C09_Equiv.node_ids_set_amap. rewrite (C01_GraphLemmas.node_ids_relabel (sigma_of (node_ids G)) G).
    unfold sigma_of. rewrite (C08_Sort.mapping_of_map (node_ids G) Hnd). unfold node_ids. rewrite map_length. reflexivity.
  - apply C09_Indep.amap_id_set_amap.
  - destruct (reset_indices_by_spec (node_ids G) G WG Hnd (fun n => iff_refl _)) as (_ & _ & f & Fi & _ & E). exists f. split; auto.
Qed.

(** NormalizeAAM.extract_subgraph: the induced subgraph - well-formed, the kept atoms with their attributes, exactly the
    bonds between kept atoms *)
Theorem extract_subgraph_spec (G : mgraph) (keep : list N) : wf G ->
  wf (extract_subgraph G keep) /\
  (forall n, label (extract_subgraph G keep) n = if mem n keep then label G n else None) /\
  (forall a b x, In (a, b, x) (gedges (extract_subgraph G keep)) <-> In (a, b, x) (gedges G) /\ In a keep /\ In b keep).
Proof.
  intros WG. split; [apply C01_GraphLemmas.wf_induced; exact WG|]. split.
  - intros n. apply C01_GraphLemmas.label_induced.
  - intros a b x. apply C01_GraphLemmas.in_edges_induced.
Qed.

(** rsmi_balance_check at string level = the graph-level formula, relative to the CalcMolFormula contract for the two sides
    (equal formula strings <=> equal element counts with hydrogens and equal total charge: explicit premise, RDKit) *)
Theorem rsmi_balance_check_graph (formula : str -> option str) (a b fa fb : str) (G H : mgraph) :
  nosep GT a -> nosep GT b -> formula a = Some fa -> formula b = Some fb ->
  (fa = fb <-> (forall e, el_count e G = el_count e H) /\ total_charge G = total_charge H) ->
  rsmi_balance_check formula (a ++ GG ++ b) = Some (balancedb G H).
Proof.
  intros Ha Hb Ea Eb Hc. pose proof (C09_Str.rsmi_balance_check_spec formula a b Ha Hb fa fb Ea Eb) as S.
  pose proof (C09_Balance.balance_iff G H) as B.
  unfold rsmi_balance_check in *. rewrite C09_Str.split_gg_app in * by assumption.
  f_equal. destruct (balancedb G H) eqn:E.
  - assert (T : fa = fb) by (apply Hc; apply B; reflexivity). apply S in T. injection T as T. exact T.
  - destruct (C08_Model.str_eqb (formula_or_empty formula a) (formula_or_empty formula b)) eqn:E2; [|reflexivity].
    assert (T : fa = fb) by (apply S; reflexivity). apply Hc in T. apply B in T. congruence.
Qed.

(** validate_smiles: per mapper column one verdict per record, in record order, each the verdict of smiles_check on
    (that record's mapped string, that record's ground truth) - in this argument order; the count is the number of accepted
    records *)
Theorem validate_smiles_spec (m : str) (ia : bool) (ncols : nat) (rows : list orow) :
  length (validate_smiles m ia ncols rows) = ncols /\
  forall k, (k < ncols)%nat ->
    let c := nth k (validate_smiles m ia ncols rows) ([], 0%nat, 0%nat) in
    length (fst (fst c)) = length rows /\ snd c = length rows /\
    (forall i, (i < length rows)%nat ->
       nth i (fst (fst c)) false = smiles_check_full m ia (nth k (snd (nth i rows (None, []))) None) (fst (nth i rows (None, [])))) /\
    snd (fst c) = length (filter (fun b : bool => b) (fst (fst c))) /\ (snd (fst c) <= snd c)%nat.
Proof.
  split; [unfold validate_smiles; rewrite map_length, seq_length; reflexivity|].
  intros k Hk. cbv zeta. unfold validate_smiles.
  rewrite (C09_Lists.nth_map (fun k => validate_column m ia k rows) _ k _ 0%nat), seq_nth by (rewrite ?seq_length; exact Hk). simpl.
  repeat split.
  - rewrite map_length. reflexivity.
  - intros i Hi. apply (C09_Lists.nth_map (fun r : orow => smiles_check_full m ia (nth k (snd r) None) (fst r)) rows i false (None, []) Hi).
  - rewrite <- (map_length (fun r : orow => smiles_check_full m ia (nth k (snd r) None) (fst r)) rows).
    generalize (map (fun r : orow => smiles_check_full m ia (nth k (snd r) None) (fst r)) rows). intros l.
    induction l as [|b l IH]; simpl; [lia|]. destruct b; simpl; lia.
Qed.

(** check_pair: with ignore_tautomers=True it is smiles_check on (mapped, truth); otherwise it answers True exactly when the
    mapping is accepted against SOME enumerated tautomer of the truth (None when the enumeration failed); validate_smiles
    applies it record by record and column by column with the SAME method and flags *)
Theorem check_pair_spec (m : str) (ia : bool) (r1 r2 : ograph) (tauts : option (list ograph)) :
  check_pair m ia true r1 r2 tauts = Some (smiles_check_full m ia r1 r2) /\
  (forall l, tauts = Some l ->
     exists b, check_pair m ia false r1 r2 tauts = Some b /\
       (b = true <-> exists t, In t l /\ smiles_check_full m ia r1 t = true)) /\
  (tauts = None -> check_pair m ia false r1 r2 tauts = None).
Proof.
  split; [reflexivity|]. split.
  - intros l ->. eexists. split; [reflexivity|]. apply existsb_exists.
  - intros ->. reflexivity.
Qed.
Theorem validate_smiles_t_spec (m : str) (ia it : bool) (ncols : nat) (rows : list orowT) :
  length (validate_smiles_t m ia it ncols rows) = ncols /\
  forall k i, (k < ncols)%nat -> (i < length rows)%nat ->
    nth i (nth k (validate_smiles_t m ia it ncols rows) []) None =
    check_pair m ia it (nth k (snd (nth i rows (None, None, []))) None) (fst (fst (nth i rows (None, None, [])))) (snd (fst (nth i rows (None, None, [])))).
Proof.
  split; [unfold validate_smiles_t; rewrite map_length, seq_length; reflexivity|].
  intros k i Hk Hi. unfold validate_smiles_t.
  rewrite (C09_Lists.nth_map (fun k => validate_column_t m ia it k rows) _ k _ 0%nat), seq_nth by (rewrite ?seq_length; exact Hk). simpl.
  apply (C09_Lists.nth_map (fun r : orowT => check_pair m ia it (nth k (snd r) None) (fst (fst r)) (snd (fst r))) rows i None (None, None, []) Hi).
Qed.

(** * Non-vacuity *)
Example ex_expand : expand_sides 4 [3; 0; 5; 0; 0; 3; 5] = ([3; 6; 5; 7], [8; 3; 5]).
Proof. reflexivity. Qed.
Example ex_expand_hyps : (forall m, In m ([3; 0; 5; 0] ++ [0; 3; 5]) -> 0 <= m) /\ NoDup (filter nz [3; 0; 5; 0]) /\ NoDup (filter nz [0; 3; 5]).
Proof.
  split; [|split].
  - intros m I. simpl in I. repeat destruct I as [I|I]; try lia; contradiction.
  - simpl. repeat constructor; simpl; intuition discriminate.
  - simpl. repeat constructor; simpl; intuition discriminate.
Qed.
Example ex_expand_unmapped : expand_numbers [0; 0; 0] = [1; 2; 3].
Proof. reflexivity. Qed.
Example ex_equiv_empty : check_equivariant_graph [its0; its0; its0] = ([(0, 1); (0, 2); (1, 2)]%nat, 3%nat).
Proof. vm_compute. reflexivity. Qed.
Example ex_reset : node_ids (reset_indices (extract_subgraph C09_Main.ex_H [7; 2]%N)) = [1; 2]%N /\ node_ids (reset_indices_by [2; 7]%N (extract_subgraph C09_Main.ex_H [7; 2]%N)) = [2; 1]%N /\
                   gedges (extract_subgraph C09_Main.ex_H [7; 1]%N) = [(1, 7, 2%Z)]%N /\ gedges (extract_subgraph C09_Main.ex_H [7; 2]%N) = [].
Proof. vm_compute. repeat split. Qed.
Example ex_validate : validate_smiles [82; 67]%N false 2 [(Some (C09_Main.ex_G, C09_Main.ex_H), [Some (C09_Main.ex_G, C09_Main.ex_H); None])]
                      = [([true], 1%nat, 1%nat); ([false], 0%nat, 1%nat)].
Proof. vm_compute. reflexivity. Qed.
Example ex_check_pair :
  check_pair [82; 67]%N false false (Some (C09_Main.ex_G, C09_Main.ex_H)) None (Some [None; Some (C09_Main.ex_G, C09_Main.ex_H)]) = Some true /\
  check_pair [82; 67]%N false false (Some (C09_Main.ex_G, C09_Main.ex_H)) None (Some [None]) = Some false /\
  check_pair [82; 67]%N false false (Some (C09_Main.ex_G, C09_Main.ex_H)) None None = None.
Proof. vm_compute. repeat split. Qed.
