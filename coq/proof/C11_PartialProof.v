(** C11 (round 3) — PartialMatcher's pruning over its list of hosts. *)
From Coq Require Import List NArith.
From SK Require Import model.C11_Model model.C11_Partial proof.C11_Dedup proof.C11_Sig.
Import ListNotations.

Lemma partial_prune_hosts_all (X : Type) (key : X -> mapping) (fn : nlab -> N) (k : nat) (xs : list X) :
  (forall h, partial_prune_hosts key fn [h] k xs = partial_prune key fn h k xs) /\
  (forall hosts, length hosts <> 1%nat -> xs <> [] -> partial_prune_hosts key fn hosts k xs = Some xs) /\
  (forall hosts out, partial_prune_hosts key fn hosts k xs = Some out -> subseq out xs).
Proof.
  split; [|split].
  - intros h. destruct xs; reflexivity.
  - intros hosts Hl Hx. destruct xs as [|x r]; [congruence|]. destruct hosts as [|h [|h' t]]; simpl in *; try reflexivity. congruence.
  - intros hosts out. destruct xs as [|x r]; simpl; [intros [= <-]; constructor|].
    destruct hosts as [|h [|h' t]]; try (intros [= <-]; apply subseq_refl).
    apply (partial_prune_subseq X key fn h k (x :: r) out).
Qed.
