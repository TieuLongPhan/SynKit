(** C08 — the automorphism output of the exact back-end (canonical_form(return_aut=True), compute_orbits' input):
    every permutation the search reports next to the best one is a leaf with the minimal label, i.e. a permutation of
    the node set, and renumbering by it gives the same covered canonical graph: the map best_i |-> reported_i is an
    automorphism of the graph on the covered attributes.  [Section Reported]: what the accumulator of a visit fold holds, for
    any label function (also used by C08_DAuts.v). *)
From Coq Require Import List NArith ZArith Bool Arith Lia Permutation.
From SK Require Import lib.LGraph lib.IRSortKeys lib.IRCore lib.IRSearch lib.StrJoin.
From SK Require Import model.C08_Model proof.C08_Spec proof.C08_Sort proof.C08_Faithful proof.C08_Cov proof.C08_SigFun
                       proof.C08_Render proof.C08_IR proof.C08_Nauty proof.C08_Sound proof.C08_Equiv proof.C08_Invariant.
From SK Require lib.IRInst.
Import ListNotations.

Notation ix p := (apply_map (mapping_of p)).

(* ---------------- what the accumulator of a visit fold holds, for any label function ---------------- *)
Section Reported.
Variable lab : list N -> str.

(* soundness: the best entry and every reported one are among the visited, the reported ones with the best label *)
Definition acc_ok (l : list (list N)) (a : nacc) : Prop :=
  match fst a with
  | None => snd a = []
  | Some (bl, bp) => In bp l /\ bl = lab bp /\ forall q, In q (snd a) -> In q l /\ lab q = bl
  end.

Lemma visit_ok l a p : acc_ok l a -> In p l -> acc_ok l (visit strleb lab a p).
Proof.
  unfold acc_ok, visit. destruct (fst a) as [[bl bp]|] eqn:Ea; intros H Hp.
  - destruct H as (H1 & H2 & H3).
    destruct (ltb strleb (lab p) bl) eqn:E1; cbn [fst snd].
    + split; auto. split; auto. intros q [<-|[]]. auto.
    + destruct (eqb strleb (lab p) bl) eqn:E2; cbn [fst snd]; rewrite ?Ea.
      * split; auto. split; auto. intros q I. apply in_app_or in I. destruct I as [I|[<-|[]]]; auto.
        split; auto. apply (eqb_eq strleb strleb_total strleb_antisym). exact E2.
      * auto.
  - cbn [fst snd]. split; auto. split; auto. intros q [<-|[]]. auto.
Qed.

Lemma fold_visit_ok l : forall l' a, incl l' l -> acc_ok l a -> acc_ok l (fold_left (visit strleb lab) l' a).
Proof.
  induction l' as [|p l' IH]; intros a Hi Ha; simpl; auto.
  apply IH; [intros x I; apply Hi; right; exact I|]. apply visit_ok; auto. apply Hi. left. reflexivity.
Qed.

(* completeness: the best label bounds the labels of the visited [S], and every visited one that attains it is reported *)
Definition label_inv (S : list (list N)) (a : nacc) : Prop :=
  match fst a with
  | None => forall q, ~ In q S
  | Some (bl, _) => forall q, In q S -> strleb bl (lab q) = true /\ (lab q = bl -> In q (snd a))
  end.

Lemma ltb_false_leb x y : ltb strleb x y = false -> strleb y x = true.
Proof.
  unfold ltb. intros H. destruct (strleb_total x y) as [E|E]; auto. rewrite E in H. simpl in H.
  apply negb_false_iff in H. exact H.
Qed.

Lemma visit_inv S a p : label_inv S a -> label_inv (p :: S) (visit strleb lab a p).
Proof.
  unfold label_inv, visit. destruct (fst a) as [[bl bp]|] eqn:Ea; intros H.
  - destruct (ltb strleb (lab p) bl) eqn:E1; cbn [fst snd].
    + apply (ltb_spec strleb strleb_total strleb_antisym) in E1. destruct E1 as [E1 N1].
      intros q [<-|I].
      * split; [apply (leb_refl strleb strleb_total)|intros _; left; reflexivity].
      * destruct (H q I) as [H1 H2]. split; [eapply strleb_trans; eauto|].
        intros E. exfalso. apply N1. apply strleb_antisym; auto. rewrite <- E. exact H1.
    + pose proof (ltb_false_leb _ _ E1) as L1.
      destruct (eqb strleb (lab p) bl) eqn:E2; cbn [fst snd]; rewrite ?Ea.
      * apply (eqb_eq strleb strleb_total strleb_antisym) in E2.
        intros q [<-|I]; [split; auto; intros _; apply in_or_app; right; left; reflexivity|].
        destruct (H q I) as [H1 H2]. split; auto. intros E. apply in_or_app. left. auto.
      * intros q [<-|I]; [|apply H; auto]. split; auto. intros E. exfalso.
        rewrite (proj2 (eqb_eq strleb strleb_total strleb_antisym _ _) E) in E2. discriminate.
  - cbn [fst snd]. intros q [<-|I]; [|exfalso; apply (H q I)].
    split; [apply (leb_refl strleb strleb_total)|intros _; left; reflexivity].
Qed.

Lemma label_inv_ext S S' a : (forall q, In q S <-> In q S') -> label_inv S a -> label_inv S' a.
Proof.
  unfold label_inv. intros HS. destruct (fst a) as [[bl bp]|]; intros H q I.
  - apply H. apply HS. exact I.
  - apply (H q). apply HS. exact I.
Qed.

Lemma fold_label_inv : forall l S a, label_inv S a -> label_inv (l ++ S) (fold_left (visit strleb lab) l a).
Proof.
  induction l as [|p l IH]; intros S a H; simpl; auto.
  eapply label_inv_ext; [|apply (IH (p :: S)); apply visit_inv; exact H].
  intros q. simpl. rewrite !in_app_iff. simpl. tauto.
Qed.
(* after a whole fold: the reported entries are exactly the visited ones with the best label *)
Lemma reported_iff l a bl bp : a = fold_left (visit strleb lab) l (None, []) -> fst a = Some (bl, bp) ->
  forall q, In q (snd a) <-> In q l /\ lab q = bl.
Proof.
  intros -> Ea q. split.
  - intros Hq. pose proof (fold_visit_ok l l (None, []) (incl_refl l) eq_refl) as Hok.
    unfold acc_ok in Hok. rewrite Ea in Hok. apply Hok. exact Hq.
  - intros [Iq Eq]. pose proof (fold_label_inv l [] (None, []) (fun q0 I => I)) as Hinv.
    unfold label_inv in Hinv. rewrite Ea in Hinv. apply (Hinv q); [rewrite app_nil_r; exact Iq|exact Eq].
Qed.
End Reported.

Notation lvs g := (leaves2 _ lexleb (sigN g) (rfuel g) (children g) (sfuel g) (init_partition g) []).
Lemma nauty_reported g : NoDup (node_ids g) ->
  forall q, In q (snd (nauty_acc g)) <-> In q (lvs g) /\ nlabel g q = nlabel g (nauty_perm g).
Proof.
  intros Ng. destruct (nauty_perm_leaf g Ng) as [_ Ep]. unfold nauty_perm, nauty_label in *.
  destruct (fst (nauty_acc g)) as [[bl bp]|] eqn:Ea; [|discriminate]. cbn [option_map fst] in Ep. inversion Ep; subst bl.
  apply (reported_iff (nlabel g) (lvs g) (nauty_acc g) _ bp); [apply nsearch_is_fold|exact Ea].
Qed.

Theorem nauty_auts_sound g : wf g -> els_ok g -> forall q, In q (snd (nauty_acc g)) ->
  Permutation q (node_ids g) /\ nlabel g q = nlabel g (nauty_perm g) /\
  geq_cov (relabel (ix (nauty_perm g)) g) (relabel (ix q) g).
Proof.
  intros Hg Eg q Hq. pose proof (proj1 Hg) as Ng. apply (nauty_reported g Ng) in Hq. destruct Hq as [Iq Eq].
  destruct (nauty_perm_leaf g Ng) as [Lp _].
  pose proof (leaf_perm g q Ng Iq) as Pq. pose proof (leaf_perm g _ Ng Lp) as Pp.
  split; [exact Pq|]. split; [exact Eq|]. apply (same_label_geq_cov g Hg Eg _ q Pp Pq). symmetry. exact Eq.
Qed.

(* [label_inv] for the label of the search itself *)
Definition inv (g : graph) : list (list N) -> nacc -> Prop := Eval unfold label_inv in label_inv (nlabel g).
Lemma fold_inv g : forall l S a, inv g S a -> inv g (l ++ S) (fold_left (visit strleb (nlabel g)) l a).
Proof. exact (fold_label_inv (nlabel g)). Qed.

(* an automorphism on the covered attributes carries the best permutation to a reported one *)
Theorem nauty_auts_complete g sigma : wf g -> (forall x y, sigma x = sigma y -> x = y) -> geq_cov (relabel sigma g) g ->
  In (map sigma (nauty_perm g)) (snd (nauty_acc g)).
Proof.
  intros Hg Hs Hq. pose proof (proj1 Hg) as Ng. destruct (nauty_perm_leaf g Ng) as [Lp _].
  apply (nauty_reported g Ng). split.
  - apply (Permutation_in _ (leaves_rel sigma Hs g g Hg Hq)). apply in_map. exact Lp.
  - apply (nlabel_rel sigma Hs g g Hg Hq).
Qed.

(* non-vacuity: the metathesis-like ring with tuple orders has 4 reported permutations, all automorphisms *)
Definition au_g : graph :=
  LG [(1%N, NA [67%N] false 0 0 None); (2%N, NA [67%N] false 0 0 None); (3%N, NA [67%N] false 0 0 None); (4%N, NA [67%N] false 0 0 None)]
     [(1%N, 2%N, EA3 4 None (Some 0%Z)); (2%N, 3%N, EA3 0 None (Some 4%Z)); (3%N, 4%N, EA3 4 None (Some 0%Z)); (4%N, 1%N, EA3 0 None (Some 4%Z))].
Example au_ex : length (snd (nauty_acc au_g)) = 4.
Proof. vm_compute. reflexivity. Qed.

Print Assumptions nauty_auts_sound.
Print Assumptions nauty_auts_complete.
