(** C11 (round 3) — the pruning step keeps exactly the FIRST match of every class of matches that differ by an
    automorphism of the rule centre: with C11_prune_complete this characterises its output completely
    (one representative per class, the earliest, in input order).  Stdlib lists. *)
From Coq Require Import List NArith Arith Bool Lia.
From SK Require Import lib.LGraph model.C11_Model proof.C11_Aut proof.C11_Dedup proof.C11_Main.
Import ListNotations.

Section Cls.
Variable X : Type.
Variable key : X -> mapping.
Variable A : list mapping.

(** [m] has the items of [m'], or the items of [m'] with the pattern side moved by a member of [A] *)
Definition rel1 (m m' : mapping) : Prop :=
  set_eqb m m' = true \/ exists s, In s A /\ set_eqb m (act s m') = true.

Variable D : mapping -> Prop.
Hypothesis rel1_trans : forall a b c, D a -> D b -> D c -> rel1 a b -> rel1 b c -> rel1 a c.

Definition seen_ok (seen : list mapping) (ys : list X) : Prop :=
  forall m, existsb (set_eqb m) seen = true <-> exists y, In y ys /\ rel1 m (key y).

Definition same_cls (x z : X) : Prop := rel1 (key x) (key z).

Lemma seen_ok_step seen ys x : seen_ok seen ys ->
  seen_ok (key x :: map (fun s => act s (key x)) A ++ seen) (x :: ys).
Proof.
  intros H m. simpl. rewrite orb_true_iff, existsb_app, orb_true_iff, (H m). split.
  - intros [E|[E|(y & Hy & R)]].
    + exists x. split; [left; reflexivity | left; exact E].
    + apply existsb_exists in E. destruct E as (m' & Hm' & E). apply in_map_iff in Hm'. destruct Hm' as (s & <- & Hs).
      exists x. split; [left; reflexivity | right; eauto].
    + exists y. split; [right; exact Hy | exact R].
  - intros (y & [<-|Hy] & R).
    + destruct R as [E|(s & Hs & E)]; [left; exact E|]. right. left. apply existsb_exists.
      exists (act s (key x)). split; [apply in_map_iff; eauto | exact E].
    + right. right. eauto.
Qed.

Lemma go_first xs : forall seen ys, NoDup xs ->
  (forall x, In x xs -> D (key x)) -> (forall y, In y ys -> D (key y)) -> seen_ok seen ys ->
  forall x, In x (dedup_aut_go key A xs seen) <->
            (In x xs /\ first_among same_cls xs x /\ forall y, In y ys -> ~ same_cls x y).
Proof.
  induction xs as [|h r IH]; intros seen ys Hnd HD HDy Hok x; simpl; [tauto|].
  inversion Hnd as [|? ? Hh Hr]; subst.
  assert (HDr : forall x, In x r -> D (key x)) by (intros; apply HD; right; assumption).
  rewrite <- and_assoc, (first_among_cons same_cls h r x Hh).
  destruct (existsb (set_eqb (key h)) seen) eqn:Eh.
  - (* [h] is related to a kept [y0]; by transitivity so is whatever is related to [h] *)
    apply (Hok (key h)) in Eh. destruct Eh as (y0 & Hy0 & R0).
    rewrite (IH seen ys Hr HDr HDy Hok x). split.
    + intros (Hx & Hf & Hy). split; [|exact Hy]. right. split; [exact Hx|]. split; [exact Hf|].
      intros R. apply (Hy y0 Hy0). apply (rel1_trans (key x) (key h) (key y0)); auto. apply HD. left. reflexivity.
    + intros [[->|(Hx & Hf & _)] Hy]; [exfalso; exact (Hy y0 Hy0 R0) | auto].
  - assert (Hmiss : forall y, In y ys -> ~ same_cls h y).
    { intros y Hy R. assert (existsb (set_eqb (key h)) seen = true) by (apply Hok; eauto). congruence. }
    assert (HDy' : forall y, In y (h :: ys) -> D (key y)) by (intros y [<-|Hy]; [apply HD; left; reflexivity | auto]).
    simpl. rewrite (IH _ (h :: ys) Hr HDr HDy' (seen_ok_step seen ys h Hok) x). split.
    + intros [<-|(Hx & Hf & Hy)]; [split; [left; reflexivity | exact Hmiss]|].
      split; [|intros y Hyin; apply Hy; right; exact Hyin].
      right. split; [exact Hx|]. split; [exact Hf | apply Hy; left; reflexivity].
    + intros [[->|(Hx & Hf & Hn)] Hy]; [left; reflexivity|]. right. split; [exact Hx|]. split; [exact Hf|].
      intros y [<-|Hyin]; [exact Hn | exact (Hy y Hyin)].
Qed.

Lemma dedup_aut_first xs : NoDup xs -> (forall x, In x xs -> D (key x)) ->
  forall x, In x (dedup_aut key A xs) <-> (In x xs /\ first_among same_cls xs x).
Proof.
  intros Hnd HD x. unfold dedup_aut.
  rewrite (go_first xs [] [] Hnd HD (fun y H => match H with end)).
  - split; [intros (a & b & _); auto | intros (a & b); split; [exact a | split; [exact b | intros y []]]].
  - intros m. simpl. split; [discriminate | intros (y & [] & _)].
Qed.
End Cls.

(** ---------- the rule automorphisms: [rel1] is transitive on matches that live on the nodes of the rule centre ---------- *)
Definition on_nodes (rc : graph) (m : mapping) : Prop := forall p h, In (p, h) m -> In p (node_ids rc).

Lemma set_eqb_trans a b c : set_eqb a b = true -> set_eqb b c = true -> set_eqb a c = true.
Proof. rewrite !set_eqb_spec. intros H1 H2 x. rewrite (H1 x). apply H2. Qed.

Lemma act_set_eq s a b : set_eqb a b = true -> set_eqb (act s a) (act s b) = true.
Proof.
  rewrite !set_eqb_spec. intros H [p h]. rewrite !in_act.
  split; intros (p' & Hin & E); exists p'; (split; [apply H; exact Hin | exact E]).
Qed.

Lemma act_compose (rc : graph) (s t : N -> N) (c : mapping) :
  simple_graph rc -> is_automorphism n_full e_full rc t -> on_nodes rc c ->
  set_eqb (act (aut_pairs rc s) (act (aut_pairs rc t) c)) (act (aut_pairs rc (fun u => s (t u))) c) = true.
Proof.
  intros Hg Ht Hc. apply set_eqb_spec. intros [p h]. rewrite !in_act. split.
  - intros (p' & Hin & ->). apply in_act in Hin. destruct Hin as (p'' & Hin & ->).
    exists p''. split; [exact Hin|].
    pose proof (Hc p'' h Hin) as Hp.
    rewrite (app_map_aut_pairs rc t p'' (proj1 Hg) Hp).
    rewrite (app_map_aut_pairs rc s (t p'') (proj1 Hg)) by (apply Ht; exact Hp).
    rewrite (app_map_aut_pairs rc (fun u => s (t u)) p'' (proj1 Hg) Hp). reflexivity.
  - intros (p'' & Hin & ->). pose proof (Hc p'' h Hin) as Hp.
    exists (t p''). split.
    + apply in_act. exists p''. split; [exact Hin|]. symmetry. apply app_map_aut_pairs; [apply Hg | exact Hp].
    + rewrite (app_map_aut_pairs rc (fun u => s (t u)) p'' (proj1 Hg) Hp).
      rewrite (app_map_aut_pairs rc s (t p'') (proj1 Hg)) by (apply Ht; exact Hp). reflexivity.
Qed.

Lemma rel1_rule_trans (rc : graph) : simple_graph rc ->
  forall a b c, on_nodes rc a -> on_nodes rc b -> on_nodes rc c ->
    rel1 (rule_auts rc) a b -> rel1 (rule_auts rc) b c -> rel1 (rule_auts rc) a c.
Proof.
  intros Hg a b c _ _ Hc [E1|(s & Hs & E1)] [E2|(t & Ht & E2)].
  - left. eapply set_eqb_trans; eauto.
  - right. exists t. split; [exact Ht|]. eapply set_eqb_trans; eauto.
  - right. exists s. split; [exact Hs|]. eapply set_eqb_trans; [exact E1|]. apply act_set_eq. exact E2.
  - right. unfold rule_auts in *.
    apply (auts_listing n_full e_full rc Hg) in Hs. destruct Hs as (fs & Hfs & ->).
    apply (auts_listing n_full e_full rc Hg) in Ht. destruct Ht as (ft & Hft & ->).
    exists (aut_pairs rc (fun u => fs (ft u))). split.
    + apply (auts_listing n_full e_full rc Hg). exists (fun u => fs (ft u)). split; [|reflexivity].
      apply isaut_comp; assumption.
    + eapply set_eqb_trans; [exact E1|]. eapply set_eqb_trans; [apply act_set_eq; exact E2|].
      apply act_compose; assumption.
Qed.

Lemma prune_first_of_class (X : Type) (key : X -> mapping) (rc : graph) (raw : list X) :
  simple_graph rc -> NoDup raw -> (forall x, In x raw -> on_nodes rc (key x)) ->
  forall x, In x (prune key rc raw) <->
    (In x raw /\
     forall l1 l2, raw = l1 ++ x :: l2 -> forall z, In z l1 ->
       ~ exists s, is_automorphism n_full e_full rc s /\
                   forall p h, In (p, h) (key x) <-> exists p', In (p', h) (key z) /\ p = s p').
Proof.
  intros Hg Hnd HD x.
  assert (Hconv : forall z, In z raw ->
            (rel1 (rule_auts rc) (key x) (key z) <->
             exists s, is_automorphism n_full e_full rc s /\
                       forall p h, In (p, h) (key x) <-> exists p', In (p', h) (key z) /\ p = s p')).
  { intros z Hz. apply items_moved_fun; [exact Hg | apply HD; exact Hz]. }
  unfold prune. destruct (1 <? length raw)%nat eqn:El.
  - rewrite (dedup_aut_first X key (rule_auts rc) (on_nodes rc) (rel1_rule_trans rc Hg) raw Hnd HD x).
    split; intros (Hx & Hf); (split; [exact Hx|]); intros l1 l2 E z Hz; unfold same_cls.
    + rewrite <- Hconv; [apply (Hf l1 l2 E z Hz)|]. rewrite E. apply in_or_app. left. exact Hz.
    + rewrite Hconv; [apply (Hf l1 l2 E z Hz)|]. rewrite E. apply in_or_app. left. exact Hz.
  - apply Nat.ltb_ge in El. split; [|tauto]. intros Hx. split; [exact Hx|].
    intros l1 l2 E z Hz. exfalso. rewrite E, app_length in El. simpl in El.
    destruct l1; [destruct Hz | simpl in El; lia].
Qed.

(** non-vacuity: on the example of C11_Main the first and the third match are the first of their classes *)
Example ex_first_of_class :
  NoDup ex_raw /\ (forall x, In x ex_raw -> on_nodes ex_path x) /\
  prune (fun m : mapping => m) ex_path ex_raw = [[(1, 7); (2, 8); (3, 9)]; [(1, 7); (2, 8); (3, 6)]]%N.
Proof.
  split; [|split; [|vm_compute; reflexivity]].
  - unfold ex_raw. repeat constructor; simpl; intuition discriminate.
  - intros x Hx p h. apply dom_ok_spec with (raw := ex_raw); [vm_compute; reflexivity | exact Hx].
Qed.
