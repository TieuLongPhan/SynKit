(** C03 — second layer of glue proofs: the statements of proof/C03_Proof.v lifted to the DECOMPOSITION of the glued
    ITS (what _to_smarts serialises), element / hydrogen / charge accounting under [balancedb], the bundled
    changed-bond correspondence with end-atom labels, and the exact condition under which no ITS is produced. *)
From Coq Require Import List NArith ZArith Bool Lia.
From SK Require Import lib.Tok lib.LGraph model.C03_Model proof.C03_Proof.
Import ListNotations.
Local Open Scope Z_scope.

(** * Simple edge lists (one entry per unordered pair, no loops), as a proposition on the endpoint pairs *)
Definition pairs {B} (es : list (N * N * B)) : list (N * N) := map (fun e => fst e) es.
Fixpoint simpleP (ps : list (N * N)) : Prop :=
  match ps with
  | [] => True
  | (a, b) :: r => a <> b /\ (forall u v, In (u, v) r -> peq u v a b = false) /\ simpleP r
  end.

Lemma simpleP_of_b {B} (es : list (N * N * B)) : simple_edgesb es = true -> simpleP (pairs es).
Proof.
  induction es as [|[[a b] x] r IH]; simpl; [auto|]. intros H.
  apply andb_prop in H. destruct H as [H H3]. apply andb_prop in H. destruct H as [H1 H2].
  split; [|split; [|auto]].
  - intro; subst. rewrite N.eqb_refl in H1. discriminate.
  - intros u v I. unfold pairs in I. apply in_map_iff in I. destruct I as ([[u' v'] y] & E & I). simpl in E. inversion E; subst.
    apply negb_true_iff in H2. destruct (peq u v a b) eqn:Ep; [|reflexivity].
    rewrite <- H2. symmetry. apply existsb_exists. exists (u, v, y). auto.
Qed.

Lemma simpleP_app ps a b : simpleP ps -> a <> b -> (forall u v, In (u, v) ps -> peq u v a b = false) -> simpleP (ps ++ [(a, b)]).
Proof.
  induction ps as [|[a0 b0] r IH]; simpl; intros Hs Hne Hall.
  - split; [exact Hne|]. split; [intros u v []|constructor].
  - destruct Hs as (H1 & H2 & H3). split; [exact H1|]. split.
    + intros u v I. apply in_app_or in I. destruct I as [I|[I|[]]]; [auto|]. inversion I; subst.
      rewrite peq_swap. apply Hall. auto.
    + apply IH; auto.
Qed.

Lemma peq_false_trans u v p q a b : peq u v p q = false -> peq p q a b = true -> peq u v a b = false.
Proof.
  intros H1 H2. destruct (peq u v a b) eqn:E; [|reflexivity].
  rewrite <- H1. symmetry. apply (peq_trans a b u v p q); rewrite peq_swap; assumption.
Qed.

Lemma find_edge_none_all {B} (es : list (N * N * B)) a b :
  (forall u v y, In (u, v, y) es -> peq u v a b = false) -> find_edge a b es = None.
Proof.
  induction es as [|[[p q] y] r IH]; intros H; [reflexivity|].
  rewrite find_edge_cons, (H p q y) by (left; reflexivity). apply IH. intros u v z I. exact (H u v z (or_intror I)).
Qed.

Lemma simple_edges_ne {B} (es : list (N * N * B)) u v x : simple_edgesb es = true -> In (u, v, x) es -> u <> v.
Proof.
  intros H I. apply in_split in I. destruct I as (l1 & l2 & E).
  exact (proj1 (simple_edgesb_spec es H l1 u v x l2 E)).
Qed.

(** * The glued ITS has a simple edge list *)
Lemma pairs_set_edge (T : its) u v x : pairs (gedges (set_edge T u v x)) = pairs (gedges T).
Proof.
  unfold pairs, set_edge; simpl. rewrite map_map. apply map_ext. intros [[a b] y].
  destruct ((N.eqb a u && N.eqb b v) || (N.eqb a v && N.eqb b u)); reflexivity.
Qed.

Lemma glue_edge_simple m T e T' :
  NoDup (map snd m) -> fst (fst e) <> snd (fst e) -> simpleP (pairs (gedges T)) ->
  glue_edge m (Some T) e = Some T' -> simpleP (pairs (gedges T')).
Proof.
  destruct e as [[u v] x]. simpl. intros Hm Hne Hs.
  destruct (mget m u) as [hu|] eqn:E1; [|intros [= <-]; exact Hs].
  destruct (mget m v) as [hv|] eqn:E2; [|intros [= <-]; exact Hs].
  destruct (adj T hu hv) as [y|] eqn:Ea.
  - destruct (Z.eqb (eG x) 0); [destruct (Z.odd _); [discriminate|]|]; intros [= <-]; rewrite pairs_set_edge; exact Hs.
  - intros [= <-]. simpl. unfold pairs. rewrite map_app. simpl. apply simpleP_app; [exact Hs| |].
    + intro; subst hv. apply Hne. exact (mget_inj m u v hu Hm E1 E2).
    + intros p q I. apply in_map_iff in I. destruct I as ([[p' q'] y] & E & I). simpl in E. inversion E; subst.
      exact (find_edge_none_in (gedges T) hu hv p q y Ea I).
Qed.

Lemma fold_glue_simple m es : forall T T',
  NoDup (map snd m) -> (forall u v x, In (u, v, x) es -> u <> v) -> simpleP (pairs (gedges T)) ->
  fold_left (glue_edge m) es (Some T) = Some T' -> simpleP (pairs (gedges T')).
Proof.
  intros T T' Hm Hne Hs H. apply (fold_glue_inv (fun T0 => simpleP (pairs (gedges T0))) m es) with (T := T); [|exact H|exact Hs].
  intros T0 [[u v] x] T0' I E HT. exact (glue_edge_simple m T0 (u, v, x) T0' Hm (Hne u v x I) HT E).
Qed.

(** * Decomposition of an ITS with a simple edge list *)
Lemma dec_adj sn se (T : its) a b : simpleP (pairs (gedges T)) ->
  adj (dec_side sn se T) a b = match adj T a b with Some x => if 0 <? se x then Some (se x) else None | None => None end.
Proof.
  unfold adj, dec_side; cbn [gedges]. induction (gedges T) as [|[[p q] y] r IH]; intros Hs; [reflexivity|].
  destruct Hs as (Hne & Hr & Hs). cbn [flat_map]. rewrite find_edge_cons.
  destruct (peq p q a b) eqn:E.
  - destruct (0 <? se y) eqn:Ey; cbn [app].
    + rewrite find_edge_cons, E. reflexivity.
    + apply find_edge_none_all. intros u v z I. apply in_flat_map in I. destruct I as ([[u' v'] y'] & I & I').
      destruct (0 <? se y'); [|destruct I']. destruct I' as [I'|[]]. inversion I'; subst.
      apply (peq_false_trans u v p q a b); [|exact E]. apply Hr. unfold pairs.
      change (u, v) with (fst (u, v, y')). apply in_map. exact I.
  - destruct (0 <? se y); cbn [app]; [rewrite find_edge_cons, E|]; apply IH; exact Hs.
Qed.

Lemma dec_gnodes sn se (T : its) : gnodes (dec_side sn se T) = map (fun p => (fst p, dec_node (sn (snd p)))) (gnodes T).
Proof. reflexivity. Qed.

(** * Sums *)
Lemma sumL_map {V W} (w : W -> Z) (f : V -> W) (l : list (N * V)) :
  sumL w (map (fun p => (fst p, f (snd p))) l) = sumL (fun a => w (f a)) l.
Proof. induction l as [|[k v] r IH]; simpl; [reflexivity|]. rewrite IH. reflexivity. Qed.
Lemma sumL_ext_in {V} (w w' : V -> Z) (l : list (N * V)) : (forall k v, In (k, v) l -> w v = w' v) -> sumL w l = sumL w' l.
Proof.
  induction l as [|[k v] r IH]; simpl; intros H; [reflexivity|]. rewrite (H k v) by auto. rewrite IH; [reflexivity|].
  intros; eapply H; eauto.
Qed.
Lemma sumL_sub {V} (f g : V -> Z) (l : list (N * V)) : sumL (fun a => f a - g a) l = sumL f l - sumL g l.
Proof. induction l as [|[k v] r IH]; simpl; [reflexivity|]. rewrite IH. lia. Qed.

Lemma count_el_dec e sn se (T : its) :
  count_el e (dec_side sn se T) = sumZ (fun a => if N.eqb (a_el (sn a)) e then 1 else 0) T.
Proof. unfold count_el, sumZ. rewrite dec_gnodes. apply (sumL_map (fun a => if N.eqb (m_el a) e then 1 else 0) (fun a => dec_node (sn a))). Qed.
Lemma total_hc_dec sn se (T : its) : total_hc (dec_side sn se T) = sumZ (fun a => a_hc (sn a)) T.
Proof. unfold total_hc, sumZ. rewrite dec_gnodes. apply (sumL_map m_hc (fun a => dec_node (sn a))). Qed.
Lemma total_charge_dec sn se (T : its) : total_charge (dec_side sn se T) = sumZ (fun a => a_ch (sn a)) T.
Proof. unfold total_charge, sumZ. rewrite dec_gnodes. apply (sumL_map m_ch (fun a => dec_node (sn a))). Qed.

(** * Node gluing keeps the reactant tuples, as lists *)
Lemma glue_nodes_iG_list T rc m :
  map (fun p => (fst p, iG (snd p))) (gnodes (glue_nodes T rc m)) = map (fun p => (fst p, iG (snd p))) (gnodes T).
Proof.
  apply (glue_nodes_inv (fun T' => map (fun p => (fst p, iG (snd p))) (gnodes T') = map (fun p => (fst p, iG (snd p))) (gnodes T)));
    [|reflexivity].
  intros T0 h pn _ H. rewrite <- H. unfold upd_node; simpl. rewrite map_map. apply map_ext. intros [k v]; simpl. destruct (N.eqb k h); reflexivity.
Qed.

Section Glue2.
  Variables (host : hostg) (rc : its) (m : mapping) (T : its).
  Hypothesis Hwh : wf_hostb host = true.
  Hypothesis Hwr : wf_rcb rc = true.
  Hypothesis Hm : match_rcb host rc m = true.
  Hypothesis Hg : glue host rc m = Some T.

  Let MO : match_ok host rc m := match_rcb_sound host rc m (wf_rc_nodup rc Hwr) Hm.
  Let DI : distinct_images m (gedges rc) := distinct_images_of m (gedges rc) (mo_vals _ _ _ MO) (wf_rc_simple rc Hwr).

  Lemma wf_host_simple : simpleP (pairs (gedges host)).
  Proof.
    apply simpleP_of_b. unfold wf_hostb in Hwh. apply andb_prop in Hwh. destruct Hwh as [H _].
    apply andb_prop in H. destruct H as [_ H]. exact H.
  Qed.

  Lemma glued_simple : simpleP (pairs (gedges T)).
  Proof.
    unfold glue in Hg. apply (fold_glue_simple m (gedges rc) _ T (mo_vals _ _ _ MO)) in Hg; [exact Hg| |].
    - intros u v x I. exact (simple_edges_ne (gedges rc) u v x (wf_rc_simple rc Hwr) I).
    - rewrite glue_nodes_edges. unfold pairs, its_of_host; simpl. rewrite map_map.
      erewrite map_ext; [exact wf_host_simple|]. intros [[u v] o]; reflexivity.
  Qed.

  Lemma glued_nodup : NoDup (node_ids T).
  Proof. rewrite (proj1 (left_is_host host rc m T Hwh Hwr Hm Hg)). exact (wf_host_nodup host Hwh). Qed.

  (** ** (a) on the decomposition: the reactant molecule graph of the glued ITS IS the substrate *)
  Theorem left_is_host_dec :
    gnodes (fst (its_decompose T)) = gnodes (mol_of_host host) /\
    (forall a b, adj (fst (its_decompose T)) a b = adj host a b).
  Proof.
    split.
    - unfold its_decompose; simpl. rewrite (glue_gnodes host rc m T Hg).
      change (map (fun p : N * inode => (fst p, dec_node (iG (snd p)))) ?l)
        with (map (fun p : N * inode => (fst p, dec_node (iG (snd p)))) l).
      transitivity (map (fun q : N * nattr => (fst q, dec_node (snd q)))
                        (map (fun p : N * inode => (fst p, iG (snd p))) (gnodes (glue_nodes (its_of_host host) rc m)))).
      + rewrite map_map. reflexivity.
      + rewrite glue_nodes_iG_list. unfold its_of_host; simpl. rewrite !map_map. reflexivity.
    - intros a b. unfold its_decompose; simpl. rewrite (dec_adj iG eG T a b glued_simple).
      exact (proj2 (proj2 (left_is_host host rc m T Hwh Hwr Hm Hg)) a b).
  Qed.

  (** ** (b) accounting on the two sides of the decomposition *)
  Lemma glued_elements k a : In (k, a) (gnodes T) -> a_el (iH a) = a_el (iG a).
  Proof.
    intros I. apply (proj2 (proj2 (conserve host rc m T Hwh Hwr Hm Hg)) k a).
    apply assoc_nodup_in; [exact glued_nodup|exact I].
  Qed.

  Theorem conserve_counts :
    (forall e, count_el e (fst (its_decompose T)) = count_el e (snd (its_decompose T))) /\
    total_hc (snd (its_decompose T)) - total_hc (fst (its_decompose T)) = sumZ dH rc /\
    total_charge (snd (its_decompose T)) - total_charge (fst (its_decompose T)) = sumZ dQ rc.
  Proof.
    unfold its_decompose; simpl. split; [|split].
    - intros e. rewrite !count_el_dec. unfold sumZ. apply sumL_ext_in. intros k a I. rewrite (glued_elements k a I). reflexivity.
    - rewrite !total_hc_dec. unfold sumZ. rewrite <- sumL_sub. exact (proj1 (conserve host rc m T Hwh Hwr Hm Hg)).
    - rewrite !total_charge_dec. unfold sumZ. rewrite <- sumL_sub. exact (proj1 (proj2 (conserve host rc m T Hwh Hwr Hm Hg))).
  Qed.

  Theorem conserve_balanced : balancedb rc = true ->
    (forall e, elem_count e (fst (its_decompose T)) = elem_count e (snd (its_decompose T))) /\
    total_charge (fst (its_decompose T)) = total_charge (snd (its_decompose T)).
  Proof.
    intros Hb. unfold balancedb in Hb. apply andb_prop in Hb. destruct Hb as [H1 H2].
    apply Z.eqb_eq in H1. apply Z.eqb_eq in H2.
    destruct conserve_counts as (C1 & C2 & C3). split.
    - intros e. unfold elem_count. rewrite (C1 e). destruct (N.eqb e EL_H); lia.
    - lia.
  Qed.

  (** ** (c) atoms: matched atoms change exactly as their template atoms; all other atoms do not change *)
  Theorem glued_atoms :
    (forall p pn h, In (p, pn) (gnodes rc) -> mget m p = Some h ->
       exists a, label T h = Some a /\ a_el (iG a) = a_el (iG pn) /\ a_el (iH a) = a_el (iG pn) /\ dH a = dH pn /\
                 a_ch (iG a) = a_ch (iG pn) /\ a_ch (iH a) = a_ch (iH pn)) /\
    (forall h a, ~ In h (map snd m) -> label T h = Some a -> iH a = iG a).
  Proof.
    split.
    - intros p pn h I E. destruct (glued_node host rc m T Hwr Hm Hg p h pn E I) as (hn & Hh & Hl).
      destruct (mo_nodes _ _ _ MO p pn I) as (h' & hn' & E' & Hh' & He & Hc & _).
      rewrite E in E'. inversion E'; subst h'. rewrite Hh in Hh'. inversion Hh'; subst hn'.
      eexists. split; [exact Hl|]. unfold dH; simpl. repeat split; auto; lia.
    - intros h a NI Hl. rewrite (unglued_node host rc m T Hg h NI) in Hl.
      destruct (label host h); inversion Hl; subst. reflexivity.
  Qed.

  (** ** (c) bonds, bundled: the match is injective, every template edge has an image bond with the template's order
      change, every changed bond of the result is such an image, every other pair of atoms is bonded as in the host *)
  Theorem changes_exact :
    NoDup (map snd m) /\
    (forall u v x, In (u, v, x) (gedges rc) ->
       exists hu hv y, mget m u = Some hu /\ mget m v = Some hv /\ adj T hu hv = Some y /\ eH y - eG y = eH x - eG x) /\
    (forall a b y, adj T a b = Some y -> eG y <> eH y ->
       exists u v x hu hv, In (u, v, x) (gedges rc) /\ mget m u = Some hu /\ mget m v = Some hv /\ peq hu hv a b = true /\
                           eH y - eG y = eH x - eG x) /\
    (forall a b, (forall u v x hu hv, In (u, v, x) (gedges rc) -> mget m u = Some hu -> mget m v = Some hv -> peq hu hv a b = false) ->
       adj T a b = option_map lift (adj host a b)).
  Proof.
    split; [exact (mo_vals _ _ _ MO)|]. split; [exact (changes_image host rc m T Hwr Hm Hg)|]. split.
    - intros a b y Ha Hne. destruct (changes_only host rc m T Hwr Hm Hg a b y Ha Hne) as (u & v & x & I & Hh & Hd).
      unfold hits, img in Hh. destruct (mget m u) as [hu|] eqn:E1; [|discriminate]. destruct (mget m v) as [hv|] eqn:E2; [|discriminate].
      exists u, v, x, hu, hv. repeat split; auto.
    - intros a b Hall. apply (unchanged_elsewhere host rc m T Hwr Hm Hg).
      destruct (find_hit m (gedges rc) a b) as [x|] eqn:Ef; [|reflexivity]. exfalso.
      apply find_hit_in in Ef. destruct Ef as ([[u v] x'] & I & Hh & _). unfold hits, img in Hh.
      destruct (mget m u) as [hu|] eqn:E1; [|discriminate]. destruct (mget m v) as [hv|] eqn:E2; [|discriminate].
      rewrite (Hall u v x' hu hv I E1 E2) in Hh. discriminate.
  Qed.
End Glue2.

(** * When is no ITS produced?  Exactly when some bond-forming template edge lands on a host bond and the sum of the
      two orders is not an integral bond order (odd in half-units) *)
Lemma fold_glue_none_witness m es : forall T, distinct_images m es ->
  fold_left (glue_edge m) es (Some T) = None ->
  exists u v x hu hv y, In (u, v, x) es /\ mget m u = Some hu /\ mget m v = Some hv /\ adj T hu hv = Some y /\
                        eG x = 0 /\ Z.odd (eH y + eH x) = true.
Proof.
  induction es as [|e r IH]; cbn [fold_left distinct_images]; intros T Hd H; [discriminate|].
  destruct Hd as [Hd1 Hd2].
  destruct (glue_edge m (Some T) e) as [T1|] eqn:E.
  - destruct (IH T1 Hd2 H) as (u & v & x & hu & hv & y & I & E1 & E2 & Ea & E0 & Eo).
    exists u, v, x, hu, hv, y. split; [right; exact I|]. repeat split; auto.
    pose proof (glue_edge_step m T e T1 hu hv E) as Hs.
    destruct (hits m e hu hv) eqn:Eh.
    + pose proof (Hd1 hu hv Eh) as Hn. pose proof (find_hit_none_in m r hu hv (u, v, x) Hn I) as Hh.
      unfold hits, img in Hh. rewrite E1, E2, peq_refl in Hh. discriminate.
    + rewrite <- Hs. exact Ea.
  - clear IH H. destruct e as [[u v] x]. simpl in E.
    destruct (mget m u) as [hu|] eqn:E1; [|discriminate]. destruct (mget m v) as [hv|] eqn:E2; [|discriminate].
    destruct (adj T hu hv) as [y|] eqn:Ea; [|discriminate].
    destruct (Z.eqb_spec (eG x) 0) as [E0|]; [|discriminate].
    destruct (Z.odd (eH y + eH x)) eqn:Eo; [|discriminate].
    exists u, v, x, hu, hv, y. split; [left; reflexivity|]. repeat split; auto.
Qed.

Theorem glue_none_iff host rc m :
  wf_rcb rc = true -> match_rcb host rc m = true ->
  (glue host rc m = None <->
   exists u v x hu hv o, In (u, v, x) (gedges rc) /\ eG x = 0 /\ mget m u = Some hu /\ mget m v = Some hv /\
                         adj host hu hv = Some o /\ Z.odd (o + eH x) = true).
Proof.
  intros Hwr Hm.
  pose proof (match_rcb_sound host rc m (wf_rc_nodup rc Hwr) Hm) as MO.
  pose proof (distinct_images_of m (gedges rc) (mo_vals _ _ _ MO) (wf_rc_simple rc Hwr)) as DI.
  split.
  - intros H. unfold glue in H. destruct (fold_glue_none_witness m (gedges rc) _ DI H)
      as (u & v & x & hu & hv & y & I & E1 & E2 & Ea & E0 & Eo).
    unfold adj in Ea. rewrite glue_nodes_edges in Ea. fold (adj (its_of_host host) hu hv) in Ea.
    rewrite adj_its_of_host in Ea. destruct (adj host hu hv) as [o|] eqn:Eh; [|discriminate].
    inversion Ea; subst y. exists u, v, x, hu, hv, o. repeat split; auto.
  - intros (u & v & x & hu & hv & o & I & E0 & E1 & E2 & Eh & Eo).
    destruct (glue host rc m) as [T|] eqn:Eg; [|reflexivity]. exfalso.
    destruct (additive host rc m T Hwr Hm Eg u v x hu hv o I E0 E1 E2 Eh) as [_ Hf]. rewrite Hf in Eo. discriminate.
Qed.

(** the last clause of [changes_exact] on its own *)
Lemma unchanged_elsewhere_explicit host rc m T :
  wf_rcb rc = true -> match_rcb host rc m = true -> glue host rc m = Some T ->
  forall a b, (forall u v x hu hv, In (u, v, x) (gedges rc) -> mget m u = Some hu -> mget m v = Some hv -> peq hu hv a b = false) ->
  adj T a b = option_map lift (adj host a b).
Proof. intros Hwr Hm Hg. exact (proj2 (proj2 (proj2 (changes_exact host rc m T Hwr Hm Hg)))). Qed.
