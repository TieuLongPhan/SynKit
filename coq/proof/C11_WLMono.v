(** C11 (round 5) — the sweeps of the estimate: one more permitted sweep either changes nothing or is one application of
    [refine_once]; the colour classes only get FINER (nodes with equal colours after k+1 permitted sweeps had equal colours
    after k), and once a sweep has changed nothing every larger [max_iter] gives the same colouring.  With
    C11_wl_never_splits: true orbits <= classes after k+1 sweeps <= classes after k sweeps.  Stdlib lists. *)
From Coq Require Import List NArith Arith Bool Lia.
From SK Require Import lib.LGraph model.C11_Model proof.C11_Aut proof.C11_WL proof.C11_Dedup proof.C11_Main.
Import ListNotations.

(** ---------- the palette: equal numbers = equal labels (for labels that were assigned) ---------- *)
Section Pal2.
Variable X : Type.
Variable xeqb : X -> X -> bool.
Hypothesis xeqb_eq : forall x y, xeqb x y = true <-> x = y.

Lemma index_of_some_nth x l : forall k i, index_of xeqb x l k = Some i ->
  exists j, (i = k + N.of_nat j)%N /\ nth_error l j = Some x.
Proof.
  induction l as [|y r IH]; simpl; intros k i H; [discriminate|].
  destruct (xeqb x y) eqn:E.
  - inversion H; subst. apply xeqb_eq in E. subst y. exists 0%nat. split; [lia | reflexivity].
  - destruct (IH _ _ H) as (j & Ei & Hn). exists (S j). split; [lia | exact Hn].
Qed.

Lemma index_of_in x l : In x l -> forall k, index_of xeqb x l k <> None.
Proof.
  induction l as [|y r IH]; intros Hin k; [destruct Hin|]. simpl.
  destruct (xeqb x y) eqn:E; [discriminate|]. apply IH. destruct Hin as [->|Hin]; [|exact Hin].
  rewrite (proj2 (xeqb_eq x x) eq_refl) in E. discriminate.
Qed.

Lemma final_covers labels : forall seen x, In x labels \/ In x seen -> In x (final xeqb labels seen).
Proof.
  induction labels as [|y r IH]; intros seen x H; simpl.
  - destruct H as [[]|H]; exact H.
  - destruct (index_of xeqb y seen 0%N) as [i|] eqn:E.
    + apply IH. destruct H as [[<-|H]|H]; [|left; exact H | right; exact H].
      right. destruct (index_of_some_nth y seen 0%N i E) as (j & _ & Hn). exact (nth_error_In _ _ Hn).
    + apply IH. destruct H as [[<-|H]|H]; [right; apply in_or_app; right; left; reflexivity | left; exact H |
                                         right; apply in_or_app; left; exact H].
Qed.

Lemma idx_inj l x y : In x l -> In y l -> idx xeqb l x = idx xeqb l y -> x = y.
Proof.
  intros Hx Hy. unfold idx.
  destruct (index_of xeqb x l 0%N) as [i|] eqn:Ex; [|exfalso; exact (index_of_in x l Hx 0%N Ex)].
  destruct (index_of xeqb y l 0%N) as [j|] eqn:Ey; [|exfalso; exact (index_of_in y l Hy 0%N Ey)].
  intros ->. destruct (index_of_some_nth x l _ _ Ex) as (a & Ea & Hna). destruct (index_of_some_nth y l _ _ Ey) as (b & Eb & Hnb).
  assert (a = b) by lia. subst b. congruence.
Qed.
End Pal2.

Lemma rl_eqb_eq a b : rl_eqb a b = true <-> a = b.
Proof. exact (prod_eqb_eq N.eqb lpeqb N.eqb_eq lpeqb_eq a b). Qed.

(** ---------- one sweep refines ---------- *)
Lemma sweep_refines fe (g : graph) cs u v : In u (node_ids g) -> In v (node_ids g) ->
  col (fst (refine_once fe g cs)) u = col (fst (refine_once fe g cs)) v -> col cs u = col cs v.
Proof.
  intros Hu Hv. rewrite (refine_once_colour fe g cs u Hu), (refine_once_colour fe g cs v Hv). intros E.
  assert (Hin : forall w, In w (node_ids g) -> In (rlabel fe g cs w) (final rl_eqb (map (rlabel fe g cs) (node_ids g)) [])).
  { intros w Hw. apply (final_covers _ rl_eqb rl_eqb_eq). left. apply in_map. exact Hw. }
  apply (idx_inj _ rl_eqb rl_eqb_eq _ _ _ (Hin u Hu) (Hin v Hv)) in E.
  unfold rlabel in E. inversion E. reflexivity.
Qed.

(** ---------- one more permitted sweep ---------- *)
Lemma refine_S fe (g : graph) k : forall cs,
  refine fe g (S k) cs = refine fe g k cs \/ refine fe g (S k) cs = fst (refine_once fe g (refine fe g k cs)).
Proof.
  induction k as [|k IH]; intros cs.
  - right. change (refine fe g 1 cs) with (let '(cs', ch) := refine_once fe g cs in if ch then cs' else cs').
    change (refine fe g 0 cs) with cs. destruct (refine_once fe g cs) as [cs' ch]. destruct ch; reflexivity.
  - change (refine fe g (S (S k)) cs) with (let '(cs', ch) := refine_once fe g cs in if ch then refine fe g (S k) cs' else cs').
    change (refine fe g (S k) cs) with (let '(cs', ch) := refine_once fe g cs in if ch then refine fe g k cs' else cs').
    destruct (refine_once fe g cs) as [cs' ch]. destruct ch; [|left; reflexivity]. apply IH.
Qed.

Lemma colouring_canonical (ids : list N) (cs : colouring) :
  map fst cs = ids -> NoDup ids -> cs = combine ids (map (col cs) ids).
Proof.
  intros <-. induction cs as [|[u c] r IH]; simpl; intros Hnd; [reflexivity|].
  inversion Hnd as [|? ? Hu Hr]; subst. unfold col at 1. simpl. rewrite N.eqb_refl. f_equal.
  rewrite (IH Hr) at 1. f_equal. apply map_ext_in. intros w Hw. unfold col. simpl.
  destruct (N.eqb_spec w u) as [->|Hne]; [contradiction | reflexivity].
Qed.

Lemma refine_nodes' fe (g : graph) k : forall cs, map fst cs = node_ids g -> map fst (refine fe g k cs) = node_ids g.
Proof. exact (refine_nodes fe g k). Qed.

Lemma unchanged_sweep_is_identity fe (g : graph) cs :
  map fst cs = node_ids g -> NoDup (node_ids g) ->
  snd (refine_once fe g cs) = false -> fst (refine_once fe g cs) = cs.
Proof.
  intros Hfst Hnd Hch.
  assert (Hfst' : map fst (fst (refine_once fe g cs)) = node_ids g) by apply refine_once_nodes.
  transitivity (combine (node_ids g) (map (col (fst (refine_once fe g cs))) (node_ids g)));
    [apply colouring_canonical; assumption|].
  transitivity (combine (node_ids g) (map (col cs) (node_ids g))); [|symmetry; apply colouring_canonical; assumption].
  f_equal. apply map_ext_in. intros u Hu.
  unfold refine_once in Hch. simpl in Hch. apply negb_false_iff in Hch. rewrite forallb_forall in Hch.
  specialize (Hch u Hu). apply N.eqb_eq in Hch. exact Hch.
Qed.

Theorem wl_sweeps (fn : nlab -> N) (fe : elab -> N) (g : graph) (k : nat) : NoDup (node_ids g) ->
  (wl fn fe g (S k) = wl fn fe g k \/ wl fn fe g (S k) = fst (refine_once fe g (wl fn fe g k))) /\
  (forall u v, In u (node_ids g) -> In v (node_ids g) ->
     col (wl fn fe g (S k)) u = col (wl fn fe g (S k)) v -> col (wl fn fe g k) u = col (wl fn fe g k) v) /\
  (forall j u v, In u (node_ids g) -> In v (node_ids g) ->
     col (wl fn fe g (k + j)) u = col (wl fn fe g (k + j)) v -> col (wl fn fe g k) u = col (wl fn fe g k) v) /\
  (snd (refine_once fe g (wl fn fe g k)) = false -> forall j, wl fn fe g (k + j) = wl fn fe g k).
Proof.
  intros Hnd.
  assert (Hstep : forall k', wl fn fe g (S k') = wl fn fe g k' \/ wl fn fe g (S k') = fst (refine_once fe g (wl fn fe g k')))
    by (intros k'; apply refine_S).
  assert (Hmono : forall k' u v, In u (node_ids g) -> In v (node_ids g) ->
            col (wl fn fe g (S k')) u = col (wl fn fe g (S k')) v -> col (wl fn fe g k') u = col (wl fn fe g k') v).
  { intros k' u v Hu Hv. destruct (Hstep k') as [->| ->]; [tauto | apply sweep_refines; assumption]. }
  split; [apply Hstep|]. split; [apply Hmono|]. split.
  - intros j. induction j as [|j IH]; intros u v Hu Hv; [rewrite Nat.add_0_r; tauto|].
    rewrite Nat.add_succ_r. intros E. apply IH; [exact Hu | exact Hv|]. apply Hmono; assumption.
  - intros Hch j. induction j as [|j IH]; [rewrite Nat.add_0_r; reflexivity|].
    rewrite Nat.add_succ_r. destruct (Hstep (k + j)%nat) as [E|E]; rewrite E, IH; [reflexivity|].
    apply unchanged_sweep_is_identity; [apply wl_nodes | exact Hnd | exact Hch].
Qed.

(** non-vacuity: the path C-C-C-C-C: degree colours after 0 sweeps (ends / inner), the centre separates after 1 sweep,
    the second sweep changes nothing, more sweeps give the same colouring *)
Definition ex_p5 : graph :=
  LG (map (fun i => (i, (0%N, 0%N, 0%N))) [1; 2; 3; 4; 5]%N)
     [(1%N, 2%N, (0%N, 0%N)); (2%N, 3%N, (0%N, 0%N)); (3%N, 4%N, (0%N, 0%N)); (4%N, 5%N, (0%N, 0%N))].
Example ex_sweeps :
  map snd (wl n_exact e_order ex_p5 0) = [0; 1; 1; 1; 0]%N /\ map snd (wl n_exact e_order ex_p5 1) = [0; 1; 2; 1; 0]%N /\
  snd (refine_once e_order ex_p5 (wl n_exact e_order ex_p5 1)) = false /\
  wl n_exact e_order ex_p5 10 = wl n_exact e_order ex_p5 1.
Proof. vm_compute. repeat split. Qed.
