(** C06 — the cheap pre-filter.  It answers "skip" only when (a) some
    pattern node has no host candidate with matching labels and at least its degree —
    then there is provably no monomorphism at all — or (b) the documented estimate guard
    fired (product of the candidate counts of a prefix of the pattern nodes exceeds
    10^4 x threshold).  Stdlib lists. *)
From Coq Require Import List NArith Bool Arith Lia Permutation.
From SK Require Import lib.LGraph lib.C01_GraphLemmas model.C06_Model lib.C06_Spec proof.C06_All proof.C06_Comps proof.C06_CompSem.
Import ListNotations.

(** ---------- neighbour lists of a simple graph have no repetition ---------- *)
Definition nb (es : list (N * N * elab)) (u : N) : list N :=
  flat_map (fun e => let '(a, b, _) := e in if N.eqb a u then [b] else if N.eqb b u then [a] else []) es.

Lemma in_nb es u v : In v (nb es u) <-> find_edge u v es <> None.
Proof. exact (in_nbrs (LG (@nil (N * nlab)) es) u v). Qed.

Lemma nb_nodup es u : simple es -> NoDup (nb es u).
Proof.
  induction 1 as [|a b x es Hn Hs IH]; simpl; [constructor|].
  destruct (N.eqb_spec a u) as [->|Ha].
  - simpl. constructor; [|exact IH]. rewrite in_nb. congruence.
  - destruct (N.eqb_spec b u) as [->|Hb]; [|exact IH].
    simpl. constructor; [|exact IH]. rewrite in_nb, find_edge_sym. congruence.
Qed.

Lemma nbrs_nodup (g : graph) u : LGraph.wf g -> NoDup (nbrs g u).
Proof. intros Hw. apply (nb_nodup (gedges g) u). apply wf_simple. exact Hw. Qed.

Lemma wf_gwf (g : graph) : LGraph.wf g -> gwf g.
Proof. intros (A & B & _). split; assumption. Qed.

Lemma functional_inv (m : mapping) p p' h : NoDup (map snd m) -> In (p, h) m -> In (p', h) m -> p = p'.
Proof. intros Hnd I I'. pose proof (NoDup_map_eq snd m _ _ Hnd I I' eq_refl). congruence. Qed.

(** a monomorphism cannot lower the degree *)
Lemma mono_degree (H P : graph) m p h : LGraph.wf P -> is_mono H P m -> In (p, h) m ->
  (degree P p <= degree H h)%N.
Proof.
  intros HwfP (A & B & C & D & E) I. unfold degree, lenN.
  assert (length (nbrs P p) <= length (nbrs H h)); [|lia].
  apply (rel_length (fun p' h' => In (p', h') m)).
  - apply nbrs_nodup. exact HwfP.
  - intros p' Ip'. apply in_nbrs in Ip'.
    assert (Inode : In p' (node_ids P)) by (apply (adjacent_nodes P p p' (wf_gwf P HwfP) Ip')).
    apply B in Inode. apply in_map_fst in Inode. destruct Inode as (h' & Ih').
    exists h'. split; [|exact Ih'].
    destruct (LGraph.adj P p p') as [b|] eqn:Eb; [|congruence].
    destruct (E p h p' h' b I Ih' Eb) as (b' & Eb' & _). apply in_nbrs. congruence.
  - intros x x' y Ix Ix'. eapply functional_inv; eauto.
Qed.

(** ---------- the two exits of the pre-filter ---------- *)
Definition cnt (H P : graph) (p : N) : N :=
  lenN (filter (fun h => nm (lab H h) (lab P p) && (degree P p <=? degree H h)%N) (node_ids H)).

Lemma qpf_loop_true H P thr : forall ps est, qpf_loop H P thr ps est = true ->
  (exists p, In p ps /\ cnt H P p = 0%N) \/
  (exists pre suf, ps = pre ++ suf /\ (thr * 10000 < fold_left (fun e p => e * cnt H P p) pre est)%N).
Proof.
  induction ps as [|p ps IH]; intros est Hq; [discriminate|].
  cbn [qpf_loop] in Hq. fold (cnt H P p) in Hq.
  destruct (N.eqb_spec (cnt H P p) 0) as [E0|_].
  - left. exists p. split; [left; reflexivity|exact E0].
  - destruct (N.ltb_spec (thr * 10000) (est * cnt H P p)) as [Hlt|_].
    + right. exists [p], ps. split; [reflexivity|exact Hlt].
    + destruct (IH _ Hq) as [(q & Iq & Eq)|(pre & suf & -> & Hlt)].
      * left. exists q. split; [right; exact Iq|exact Eq].
      * right. exists (p :: pre), suf. split; [reflexivity|exact Hlt].
Qed.

Theorem prefilter_sound (H P : graph) (thr : N) :
  LGraph.wf P -> quick_pre_filter H P thr = true ->
  (forall m, ~ is_mono H P m) \/
  (exists pre suf, node_ids P = pre ++ suf /\
     (thr * 10000 < fold_left (fun e p => e * cnt H P p) pre 1)%N).
Proof.
  intros HwfP Hq. destruct (qpf_loop_true H P thr _ _ Hq) as [(p & Ip & E0)|Hg]; [left|right; exact Hg].
  intros m Hm. pose proof Hm as (A & B & C & D & E).
  apply B in Ip. apply in_map_fst in Ip. destruct Ip as (h & Ih).
  destruct (D p h Ih) as (Inode & Hnm).
  pose proof (mono_degree H P m p h HwfP Hm Ih) as Hdeg.
  unfold cnt, lenN in E0.
  assert (Iin : In h (filter (fun h => nm (lab H h) (lab P p) && (degree P p <=? degree H h)%N) (node_ids H))).
  { apply filter_In. split; [exact Inode|]. rewrite Hnm. apply N.leb_le. exact Hdeg. }
  destruct (filter _ (node_ids H)); [destruct Iin|simpl in E0; lia].
Qed.
