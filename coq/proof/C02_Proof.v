(** C02 — proofs about model/C02_Model.v (get_rc, knn, extract_k).  get_rc is get_rc_x with the default options on the
    embedded graph ([rcx_default_emb]), so its atoms and bonds are read off the theorems about the generic get_rc_g
    (proof/C02_Generic.v); the contexts are instances of the generic balls of proof/C02_Ball.v. *)
From Coq Require Import List NArith ZArith Bool Lia.
From SK Require Import lib.LGraph lib.C01_GraphLemmas model.C01_Model model.C02_Model proof.C02_Ball proof.C02_Opts
                       proof.C02_Wfb.
Import ListNotations.
Local Open Scope Z_scope.

Definition keys (ns : list (N * inode)) : list N := map fst ns.

(** invariant of the node component: distinct ids, each with the selected labels of the ITS node *)
Definition NInv (g : its) (ns : list (N * inode)) : Prop :=
  NoDup (keys ns) /\ forall k b, In (k, b) ns -> exists a, label g k = Some a /\ b = rc_attr a.

Lemma is_hh_sym g u v : is_hh g u v = is_hh g v u.
Proof. unfold is_hh. apply andb_comm. Qed.

(** * the centre seen through [emb] *)
Lemma label_rc_emb g n : label (get_rc_x K_default false false (emb g)) n = option_map xn_of (label (get_rc g) n).
Proof. rewrite rcx_default_emb. apply label_gmap. Qed.
Lemma adj_rc_emb g u v :
  adj (get_rc_x K_default false false (emb g)) u v = option_map (fun e : iedge => (e, Some false)) (adj (get_rc g) u v).
Proof. rewrite rcx_default_emb. apply adj_gmap. Qed.
Lemma node_ids_rc_emb g : node_ids (get_rc_x K_default false false (emb g)) = node_ids (get_rc g).
Proof. rewrite rcx_default_emb. apply node_ids_gmap. Qed.

(** * get_rc: nodes *)
Lemma rc_label_sound g n b : label (get_rc g) n = Some b -> exists a, label g n = Some a /\ b = rc_attr a.
Proof.
  intros L. pose proof (label_rc_emb g n) as E. rewrite L in E. cbn [option_map] in E. unfold label in E. apply assoc_in in E.
  rewrite get_rc_x_is_generic in E.
  destruct (rcg_LInv_conn _ _ _ _ false (emb g) n _ E) as (a' & La' & Hb).
  rewrite label_emb in La'. destruct (label g n) as [a|]; [|discriminate]. simpl in La'. injection La' as <-.
  exists a. split; [reflexivity|]. apply xn_of_inj. destruct Hb as [Hb|Hb]; rewrite Hb; [apply sel_default_xn|apply sel_hh_default_xn].
Qed.

Lemma rc_NInv g : NInv g (gnodes (get_rc g)).
Proof.
  assert (NoDup (node_ids (get_rc g))) as Hn by (rewrite <- node_ids_rc_emb, get_rc_x_is_generic; apply rcg_nodup_conn).
  split; [exact Hn|]. intros k b I. apply rc_label_sound. apply assoc_nodup_in; assumption.
Qed.

Lemma rc_label_keys g n a : In n (node_ids (get_rc g)) -> label g n = Some a -> label (get_rc g) n = Some (rc_attr a).
Proof.
  intros I L. apply node_label_some in I. destruct I as (b & Lb). rewrite Lb.
  apply rc_label_sound in Lb. destruct Lb as (a' & L' & ->). congruence.
Qed.

Lemma rc_keys g k : In k (node_ids (get_rc g)) <->
  exists a b x, In (a, b, x) (gedges g) /\ (changed x = true \/ is_hh g a b = true) /\ (k = a \/ k = b) /\ In k (node_ids g).
Proof.
  rewrite <- node_ids_rc_emb, <- has_node_spec. unfold has_node. rewrite get_rc_x_is_generic, label_rcg_conn, label_emb. unfold inc_ends, hh_ends.
  pose proof (ends_emb (p_inc false) (fun _ _ x => changed x) g k (fun a b x => include_x_false (x, None))) as H1.
  pose proof (ends_emb (p_hh ish_x (emb g)) (fun a b _ => is_hh g a b) g k (fun a b x => is_hh_emb g a b)) as H2.
  destruct (label g k) as [lk|] eqn:Lk; cbn [option_map].
  - assert (In k (node_ids g)) as Ik by (eapply label_some_node; eauto).
    destruct (LGraph.mem k (ends (filter (p_inc false) (gedges (emb g))))).
    + split; [intros _|reflexivity]. destruct (proj1 H1 eq_refl) as (a & b & x & I & C & Hk). exists a, b, x. auto.
    + destruct (LGraph.mem k (ends (filter (p_hh ish_x (emb g)) (gedges (emb g))))).
      * split; [intros _|reflexivity]. destruct (proj1 H2 eq_refl) as (a & b & x & I & C & Hk). exists a, b, x. auto.
      * split; [discriminate|]. intros (a & b & x & I & [C|C] & Hk & _); [apply proj2 in H1; apply H1|apply proj2 in H2; apply H2]; exists a, b, x; auto.
  - split; [discriminate|]. intros (a & b & x & _ & _ & _ & Ik). apply node_label_some in Ik. destruct Ik as (c & Lc). congruence.
Qed.

(** * get_rc: edges *)
Lemma rc_adj g : wf g -> forall u v e,
  adj (get_rc g) u v = Some e <-> adj g u v = Some e /\ (changed e = true \/ is_hh g u v = true).
Proof.
  intros W u v e. pose proof (rcx_edges K_default false false (emb g) (wf_gmap _ _ g W) u v (e, Some false)) as H.
  rewrite adj_rc_emb, adj_emb, is_hh_emb in H. split.
  - intros A. rewrite A in H. destruct (proj1 H eq_refl) as (x & Ax & [[Hc Ey]|(_ & _ & C & _)]); [|discriminate].
    destruct (adj g u v) as [e0|]; [|discriminate]. simpl in Ax. injection Ax as <-. injection Ey as ->.
    rewrite include_x_false in Hc. auto.
  - intros [A Hc]. assert (option_map (fun e : iedge => (e, Some false)) (adj (get_rc g) u v) = Some (e, Some false)) as E.
    { apply H. exists (e, None). rewrite A. split; [reflexivity|]. left. split; [rewrite include_x_false; exact Hc|reflexivity]. }
    destruct (adj (get_rc g) u v) as [y|]; [|discriminate]. simpl in E. injection E as ->. reflexivity.
Qed.

(** the centre's bonds when "changed" (standard_order != 0) is known to mean [P] on every bond of the ITS *)
Lemma rc_edges_when g (P : iedge -> Prop) : wf g ->
  (forall u v e, In (u, v, e) (gedges g) -> (changed e = true <-> P e)) -> forall u v e,
  adj (get_rc g) u v = Some e <-> adj g u v = Some e /\ (P e \/ (is_h g u = true /\ is_h g v = true)).
Proof.
  intros W HP u v e. rewrite (rc_adj g W). unfold is_hh. rewrite andb_true_iff.
  assert (adj g u v = Some e -> (changed e = true <-> P e)) as E.
  { intros A. apply (wf_adj_iff W) in A. destruct A as [A|A]; exact (HP _ _ _ A). }
  split; intros [A Hs]; (split; [exact A|]); [rewrite <- (E A)|rewrite (E A)]; exact Hs.
Qed.

Theorem rc_edges g : wf g -> std_consistent g -> forall u v e,
  adj (get_rc g) u v = Some e <->
  adj g u v = Some e /\ (e_G e <> e_H e \/ (is_h g u = true /\ is_h g v = true)).
Proof.
  intros W Sc. apply (rc_edges_when g (fun e => e_G e <> e_H e) W).
  intros u v e I. unfold changed. rewrite negb_true_iff, Z.eqb_neq, (Sc u v e I). lia.
Qed.

(** * the centre is a well-formed graph *)
Lemma rc_wf g : wf g -> wf (get_rc g).
Proof.
  intros W. apply (wf_gmap_inv xn_of (fun e : iedge => (e, Some false))). rewrite <- rcx_default_emb. apply rcx_wf, wf_gmap, W.
Qed.

(** the atoms of the centre are the endpoints of its bonds *)
Theorem rc_nodes g : wf g -> forall n b,
  label (get_rc g) n = Some b <->
  (exists a, label g n = Some a /\ b = rc_attr a) /\ (exists v e, adj (get_rc g) n v = Some e).
Proof.
  intros W n b. split.
  - intros L. split; [apply rc_label_sound; exact L|]. apply label_some_node, rc_keys in L. destruct L as (a & b' & x & I & Hs & Hk & _).
    assert (adj (get_rc g) a b' = Some x) as AR by (apply (rc_adj g W); split; [apply wf_in_adj; assumption|exact Hs]).
    destruct Hk as [-> | ->]; [exists b', x; exact AR|exists a, x; rewrite adj_sym; exact AR].
  - intros [(a & L & ->) (v & e & A)]. apply rc_label_keys; [|exact L]. apply (adj_some_nodes _ n v e (rc_wf g W) A).
Qed.

(** * idempotence *)
Lemma is_h_rc g n : In n (node_ids (get_rc g)) -> is_h (get_rc g) n = is_h g n.
Proof.
  intros I. unfold is_h. apply node_label_some in I. destruct I as (b & L). rewrite L.
  apply rc_label_sound in L. destruct L as (a & L & ->). rewrite L. reflexivity.
Qed.

Theorem rc_idem g : wf g -> geq (get_rc (get_rc g)) (get_rc g).
Proof.
  intros W. pose proof (rc_wf g W) as W'.
  assert (forall u v, adj (get_rc (get_rc g)) u v = adj (get_rc g) u v) as Hadj.
  { intros u v. apply option_ext. intros e. rewrite (rc_adj (get_rc g) W'). split; [tauto|].
    intros A. split; [exact A|]. pose proof A as A0. apply (rc_adj g W) in A. destruct A as [A [C|Hh]]; [auto|right].
    destruct (adj_some_nodes _ u v e W' A0) as [Iu Iv].
    unfold is_hh in *. rewrite (is_h_rc g u Iu), (is_h_rc g v Iv). exact Hh. }
  split; [|exact Hadj].
  intros n. apply option_ext. intros b. rewrite (rc_nodes (get_rc g) W'). split.
  - intros [(a & L & ->) _]. pose proof L as L0. apply rc_label_sound in L. destruct L as (a0 & _ & ->). exact L0.
  - intros L. split.
    + exists b. split; [exact L|]. apply rc_label_sound in L. destruct L as (a0 & _ & ->). reflexivity.
    + apply (rc_nodes g W) in L. destruct L as [_ (v & e & A)]. exists v, e. rewrite Hadj. exact A.
Qed.

(** * equivariance *)
Lemma rc_equivariant (f : N -> N) (Hinj : forall a b, f a = f b -> a = b) (g : its) : get_rc (relabel f g) = relabel f (get_rc g).
Proof.
  apply (gmap_inj xn_of (fun e : iedge => (e, Some false))); [apply xn_of_inj|intros x y [= ->]; reflexivity|].
  rewrite <- relabel_gmap, <- !rcx_default_emb, emb_relabel. apply (rcx_equivariant f Hinj).
Qed.

(** * the radius-k neighbourhood *)
Lemma knn_spec g S k n : In n (knn g S k) <-> dist_le g S k n.
Proof. rewrite <- dist_le_g_its. apply (knn_g_spec g). Qed.

Lemma rc_keys_in g n : In n (node_ids (get_rc g)) -> In n (node_ids g).
Proof. intros I. apply rc_keys in I. destruct I as (a & b & x & _ & _ & _ & I). exact I. Qed.

Lemma dist_le_in_nodes g k n : wf g -> dist_le g (node_ids (get_rc g)) k n -> In n (node_ids g).
Proof. intros W D. apply dist_le_g_its in D. exact (dist_le_g_in_nodes g _ k n W (rc_keys_in g) D). Qed.

Lemma extract_k_succ g k : extract_k g (S k) = induced_sub g (knn g (node_ids (get_rc g)) (S k)).
Proof. reflexivity. Qed.

(** [extract_k g (S k)] is [ball_sub] around the centre atoms *)
Theorem ctx_spec g : wf g -> forall k, (1 <= k)%nat ->
  let B := dist_le g (node_ids (get_rc g)) k in
  (forall n, In n (node_ids (extract_k g k)) <-> B n) /\
  (forall n a, label (extract_k g k) n = Some a <-> label g n = Some a /\ B n) /\
  (forall u v e, adj (extract_k g k) u v = Some e <-> adj g u v = Some e /\ B u /\ B v).
Proof.
  intros W k Hk B. destruct k as [|k]; [lia|].
  destruct (ball_sub_spec g (node_ids (get_rc g)) (S k) W (rc_keys_in g)) as (HN & HL & HA).
  unfold B. split; [|split]; intros; rewrite <- !dist_le_g_its; [apply HN|apply HL|apply HA].
Qed.

(** * the chain  centre = context(0) within context(1) within context(2) ... within ITS *)
Lemma dist_le_seed g S k n : In n S -> dist_le g S k n.
Proof. intros I. exists n, O. repeat split; [exact I|lia|constructor]. Qed.

Theorem ctx_chain g : wf g -> forall k k', (k <= k')%nat ->
  extract_k g 0 = get_rc g /\
  (forall n, In n (node_ids (extract_k g k)) -> In n (node_ids (extract_k g k'))) /\
  (forall u v e, adj (extract_k g k) u v = Some e -> adj (extract_k g k') u v = Some e) /\
  (forall n, In n (node_ids (extract_k g k')) -> In n (node_ids g)) /\
  (forall u v e, adj (extract_k g k') u v = Some e -> adj g u v = Some e).
Proof.
  intros W k k' Hk. split; [reflexivity|]. pose proof (rc_wf g W) as WR.
  assert (forall j, (forall n, In n (node_ids (extract_k g j)) -> In n (node_ids g)) /\
                    (forall u v e, adj (extract_k g j) u v = Some e -> adj g u v = Some e) /\
                    (forall n, In n (node_ids (get_rc g)) -> In n (node_ids (extract_k g (S j)))) /\
                    (forall u v e, adj (get_rc g) u v = Some e -> adj (extract_k g (S j)) u v = Some e)) as H.
  { intros j. destruct (ball_sub_within g (node_ids (get_rc g)) (S j) W (rc_keys_in g)) as (_ & _ & B3 & B4).
    split; [|split; [|split; [exact B3|]]].
    - destruct j as [|j]; [apply rc_keys_in|apply (ball_sub_within g (node_ids (get_rc g)) (S j) W (rc_keys_in g))].
    - destruct j as [|j]; [intros u v e A; apply (rc_adj g W) in A; tauto|apply (ball_sub_within g (node_ids (get_rc g)) (S j) W (rc_keys_in g))].
    - intros u v e A. destruct (adj_some_nodes _ u v e WR A). apply (rc_adj g W) in A. apply B4; tauto. }
  split; [|split; [|split; apply H]].
  - destruct k as [|k], k' as [|k']; [auto|apply H|lia|apply (ball_sub_mono g (node_ids (get_rc g)) (S k) (S k') W Hk)].
  - destruct k as [|k], k' as [|k']; [auto|apply H|lia|apply (ball_sub_mono g (node_ids (get_rc g)) (S k) (S k') W Hk)].
Qed.

(** * non-vacuity: the ITS of C01's 4-atom substitution extended by a spectator chain 1-5-6-7 *)
Definition ex_n (el : N) : inode := IN el 0 0 None (NA el false 0 0 []) (NA el false 0 0 []).
Definition ex_its : its :=
  LG [(1%N, ex_n 70%N); (2%N, ex_n 17013%N); (3%N, ex_n 82%N); (4%N, ex_n 2%N); (5%N, ex_n 70%N);
      (6%N, ex_n 70%N); (7%N, ex_n 70%N); (8%N, ex_n 2%N)]
     [(1%N, 2%N, IE 2 0 2); (3%N, 4%N, IE 2 0 2); (3%N, 1%N, IE 0 2 (-2)); (4%N, 2%N, IE 0 2 (-2));
      (1%N, 5%N, IE 2 2 0); (5%N, 6%N, IE 4 4 0); (6%N, 7%N, IE 2 2 0); (4%N, 8%N, IE 2 2 0)].

Lemma ex_its_wf : wf ex_its.
Proof.
  apply wfb_sound. reflexivity.
Qed.

Lemma ex_its_std : std_consistent ex_its.
Proof.
  unfold std_consistent. apply (edges_all ex_its (fun e => e_std (snd e) =? e_G (snd e) - e_H (snd e)) (fun _ _ x => e_std x = e_G x - e_H x));
    [intros u v x; apply Z.eqb_eq|reflexivity].
Qed.

(** hypotheses satisfiable; the centre is a proper, non-empty part (4 changed bonds + the unchanged H-H bond 4-8);
    the contexts grow strictly up to radius 3 *)
Example C02_nonvacuous :
  wf ex_its /\ std_consistent ex_its /\
  map fst (gnodes (get_rc ex_its)) = [1; 2; 3; 4; 8]%N /\
  length (gedges (get_rc ex_its)) = 5%nat /\
  adj (get_rc ex_its) 4%N 8%N = Some (IE 2 2 0) /\ adj (get_rc ex_its) 1%N 5%N = None /\
  map (fun k => length (gnodes (extract_k ex_its k))) [0; 1; 2; 3]%nat = [5; 6; 7; 8]%nat.
Proof.
  split; [apply ex_its_wf|]. split; [apply ex_its_std|]. repeat split.
Qed.

Example C02_equivariant_nonvacuous :
  get_rc (relabel (N.add 10) ex_its) = relabel (N.add 10) (get_rc ex_its) /\
  relabel (N.add 10) (get_rc ex_its) <> get_rc ex_its.
Proof.
  split; [apply rc_equivariant; intros a b; apply N.add_cancel_l|]. intros E. vm_compute in E. discriminate.
Qed.
