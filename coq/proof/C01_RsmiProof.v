(** C01 — proofs about the whole-string level (model/C01_Rsmi.v): str.split(">>") and its inverse, the failure modes of
    rsmi_to_graph / rsmi_to_its / its_to_rsmi, and the string round trip for the WHOLE reaction string relative to the
    RDKit contract of theorem C01_rsmi_pipeline_hydrogens plus "the writer never emits '>'". *)
From Coq Require Import List NArith ZArith Bool String Ascii.
From SK Require Import lib.LGraph lib.C01_GraphLemmas model.C01_Model model.C02_Model model.C01_String model.C01_CleanWc model.C01_Rsmi
  proof.C01_Proof proof.C01_StringProof proof.C01_StringPipe proof.C01_StringPipeH.
Import ListNotations.
Local Open Scope string_scope.

(** * split / join *)
Lemma split_arrow_cons2 c d r :
  split_arrow (String c (String d r)) = if is_gt c && is_gt d then EmptyString :: split_arrow r else cons_head c (split_arrow (String d r)).
Proof. reflexivity. Qed.
Lemma cons_head_nonempty c l : cons_head c l <> [].
Proof. destruct l; discriminate. Qed.

Lemma split_arrow_nonempty s : split_arrow s <> [].
Proof.
  destruct s as [|c [|d r]]; [discriminate|discriminate|]. rewrite split_arrow_cons2.
  destruct (is_gt c && is_gt d); [discriminate|apply cons_head_nonempty].
Qed.

Lemma join_cons_head c l : l <> [] -> join_arrow (cons_head c l) = String c (join_arrow l).
Proof. destruct l as [|h [|k t]]; [congruence| |]; intros _; reflexivity. Qed.

Lemma join_empty_head l : l <> [] -> join_arrow (EmptyString :: l) = String ">" (String ">" (join_arrow l)).
Proof. destruct l; [congruence|]. intros _. reflexivity. Qed.

Lemma is_gt_eq c : is_gt c = true -> c = ">"%char.
Proof. unfold is_gt. apply Ascii.eqb_eq. Qed.

(** ">>".join(s.split(">>")) == s, for every string *)
Lemma join_split_aux s : join_arrow (split_arrow s) = s /\ forall c, join_arrow (split_arrow (String c s)) = String c s.
Proof.
  induction s as [|d r [IH1 IH2]].
  - split; [reflexivity|]. intros c. reflexivity.
  - split; [apply IH2|]. intros c. rewrite split_arrow_cons2.
    destruct (is_gt c && is_gt d) eqn:E.
    + apply andb_true_iff in E. destruct E as [Ec Ed]. apply is_gt_eq in Ec, Ed. subst.
      rewrite join_empty_head by apply split_arrow_nonempty. rewrite IH1. reflexivity.
    + rewrite join_cons_head by apply split_arrow_nonempty. rewrite IH2. reflexivity.
Qed.
Theorem join_split s : join_arrow (split_arrow s) = s.
Proof. apply join_split_aux. Qed.

Lemma split_cons_notgt c r : is_gt c = false -> r <> EmptyString -> split_arrow (String c r) = cons_head c (split_arrow r).
Proof. intros E N. destruct r as [|d r]; [congruence|]. rewrite split_arrow_cons2. rewrite E. reflexivity. Qed.

Lemma split_no_gt b : has_gt b = false -> split_arrow b = [b].
Proof.
  induction b as [|c b IH]; [reflexivity|]. cbn [has_gt]. intros E. apply orb_false_iff in E. destruct E as [Ec Eb].
  destruct b as [|d b]; [reflexivity|]. rewrite split_cons_notgt by (auto; discriminate). rewrite (IH Eb). reflexivity.
Qed.

Lemma append_arrow_nonempty a b : (a ++ ">>" ++ b) <> EmptyString.
Proof. destruct a; cbn; discriminate. Qed.

(** a side without '>' is cut off exactly at the first ">>" *)
Lemma split_append a b : has_gt a = false -> split_arrow (a ++ ">>" ++ b) = a :: split_arrow b.
Proof.
  induction a as [|c a IH]; intros E.
  - reflexivity.
  - cbn [has_gt] in E. apply orb_false_iff in E. destruct E as [Ec Ea].
    change (String c a ++ ">>" ++ b) with (String c (a ++ ">>" ++ b)).
    rewrite split_cons_notgt by (auto using append_arrow_nonempty). rewrite (IH Ea). reflexivity.
Qed.

(** s.split(">>") of ">>".join(l) is l again when no part contains '>' *)
Theorem split_join l : l <> [] -> Forall (fun a => has_gt a = false) l -> split_arrow (join_arrow l) = l.
Proof.
  induction l as [|a l IH]; [congruence|]. intros _ F. inversion F as [|? ? Fa Fl]; subst.
  destruct l as [|b l].
  - cbn. apply split_no_gt. exact Fa.
  - change (join_arrow (a :: b :: l)) with (a ++ ">>" ++ join_arrow (b :: l)).
    rewrite split_append by exact Fa. rewrite IH by (auto; discriminate). reflexivity.
Qed.

Lemma rsmi_parts_join a b : has_gt a = false -> has_gt b = false -> rsmi_parts (a ++ ">>" ++ b) = Some (a, b).
Proof. intros Ea Eb. unfold rsmi_parts. rewrite split_append by exact Ea. rewrite split_no_gt by exact Eb. reflexivity. Qed.

Lemma rsmi_parts_spec s a b : rsmi_parts s = Some (a, b) -> s = a ++ ">>" ++ b.
Proof.
  unfold rsmi_parts. intros E. rewrite <- (join_split s).
  destruct (split_arrow s) as [|x [|y [|z t]]]; try discriminate. inversion E; subst. reflexivity.
Qed.

(** no part of a split contains ">>" *)
Fixpoint has_arrow (s : string) : bool :=
  match s with
  | EmptyString => false
  | String c r => match r with String d _ => (is_gt c && is_gt d) || has_arrow r | EmptyString => false end
  end.

Lemma has_arrow_cons_head c l : l <> [] -> Forall (fun p => has_arrow p = false) l ->
  (is_gt c && match hd EmptyString l with String d _ => is_gt d | EmptyString => false end = false) ->
  Forall (fun p => has_arrow p = false) (cons_head c l).
Proof.
  destruct l as [|h t]; [congruence|]. intros _ F E. inversion F; subst. cbn. constructor; [|assumption].
  cbn in E. destruct h as [|d h]; [reflexivity|]. cbn [has_arrow]. rewrite E. assumption.
Qed.

Lemma hd_split_gt d r : is_gt d = false \/ True ->
  match hd EmptyString (split_arrow (String d r)) with String x _ => is_gt x | EmptyString => false end = true -> is_gt d = true.
Proof.
  intros _. destruct r as [|e r]; [cbn; auto|]. rewrite split_arrow_cons2.
  destruct (is_gt d && is_gt e) eqn:E; [cbn; discriminate|].
  destruct (split_arrow (String e r)) as [|h t]; cbn; auto.
Qed.

Lemma split_parts_no_arrow_aux s :
  Forall (fun p => has_arrow p = false) (split_arrow s) /\ forall c, Forall (fun p => has_arrow p = false) (split_arrow (String c s)).
Proof.
  induction s as [|d r [IH1 IH2]].
  - split; [repeat constructor|]. intros c. repeat constructor.
  - split; [apply IH2|]. intros c. rewrite split_arrow_cons2.
    destruct (is_gt c && is_gt d) eqn:E.
    + constructor; [reflexivity|exact IH1].
    + apply has_arrow_cons_head; [apply split_arrow_nonempty|apply IH2|].
      destruct (is_gt c) eqn:Ec; [|reflexivity]. cbn in E. cbn [andb].
      destruct (match hd EmptyString (split_arrow (String d r)) with String x _ => is_gt x | EmptyString => false end) eqn:K; [|reflexivity].
      apply hd_split_gt in K; [congruence|auto].
Qed.
Theorem split_parts_no_arrow s : Forall (fun p => has_arrow p = false) (split_arrow s).
Proof. apply split_parts_no_arrow_aux. Qed.

(** * failure modes *)
Section Fail.
Variable rd_read : bool -> string -> option rmol.
Variable rd_write : bool -> wmol -> option string.

(** a string that does not split into exactly two parts: rsmi_to_graph returns (None, None), rsmi_to_its raises *)
Lemma rsmi_malformed o s : rsmi_parts s = None ->
  rsmi_to_graph_s rd_read (ro_drop o) (ro_san o) (ro_use o) s = (None, None) /\ rsmi_to_its_str rd_read o s = Raise.
Proof. intros E. unfold rsmi_to_its_str, rsmi_to_graph_s. rewrite E. split; reflexivity. Qed.

(** drop_non_aam without use_index_as_atom_map: both sides None whatever the string, rsmi_to_its raises *)
Lemma rsmi_drop_without_use san core eh s :
  rsmi_to_graph_s rd_read true san false s = (None, None) /\ rsmi_to_its_str rd_read (RO true san false core eh) s = Raise.
Proof.
  unfold rsmi_to_its_str, rsmi_to_graph_s, smiles_to_graph_s. cbn [ro_drop ro_san ro_use].
  destruct (rsmi_parts s) as [[a b]|]; [|split; reflexivity].
  assert (forall x, match rd_read san x with Some m => mol_to_graph true false m | None => None end = None) as K
    by (intros x; destruct (rd_read san x); reflexivity).
  rewrite !K. split; reflexivity.
Qed.

(** rsmi_to_its never returns None; its_to_rsmi without clean_wildcards never raises, with it never returns None *)
Lemma rsmi_to_its_not_none o s : rsmi_to_its_str rd_read o s <> RNone.
Proof. unfold rsmi_to_its_str. destruct (rsmi_to_graph_s rd_read (ro_drop o) (ro_san o) (ro_use o) s) as [[g|] [h|]]; discriminate. Qed.
Lemma its_to_rsmi_modes san eh J :
  its_to_rsmi_str rd_write san eh false J <> Raise /\ (forall cw, cw = true -> its_to_rsmi_str rd_write san eh cw J <> RNone).
Proof.
  unfold its_to_rsmi_str, clean_wc_s. split.
  - destruct (graph_to_rsmi_s _ _ _ _ _ _); discriminate.
  - intros cw ->. destruct (graph_to_rsmi_s _ _ _ _ _ _) as [s|]; [|discriminate]. destruct (rsmi_parts s) as [[a b]|]; discriminate.
Qed.
End Fail.

(** * the whole-string functions are the two-sided functions of model/C01_String.v around split and join *)
Section Lift.
Variable rd_read : bool -> string -> option rmol.
Variable rd_write : bool -> wmol -> option string.

(** reading the whole string = splitting it, then reading the two sides *)
Lemma rsmi_to_its_str_split s :
  rsmi_to_its_str rd_read default_ropts s =
  match rsmi_parts s with
  | Some (a, b) => match rsmi_to_its_s (rd_read true) a b with Some J => Ok J | None => Raise end
  | None => Raise
  end.
Proof.
  unfold rsmi_to_its_str, rsmi_to_graph_s, smiles_to_graph_s, rsmi_to_its_s, rsmi_to_its_m, rsmi_to_graph_m, default_ropts.
  cbn [ro_drop ro_san ro_use ro_core ro_eh].
  destruct (rsmi_parts s) as [[a b]|]; [|reflexivity].
  destruct (rd_read true a) as [ma|]; [|reflexivity]. destruct (mol_to_graph true true ma); [|destruct (rd_read true b); reflexivity].
  destruct (rd_read true b) as [mb|]; [|reflexivity]. destruct (mol_to_graph true true mb); reflexivity.
Qed.

Lemma rsmi_to_its_str_default s J :
  rsmi_to_its_str rd_read default_ropts s = Ok J <->
  exists a b, rsmi_parts s = Some (a, b) /\ rsmi_to_its_s (rd_read true) a b = Some J.
Proof.
  rewrite rsmi_to_its_str_split. destruct (rsmi_parts s) as [[a b]|].
  - destruct (rsmi_to_its_s (rd_read true) a b) as [J'|] eqn:E0; split.
    + intros [= <-]. exists a, b. auto.
    + intros (a' & b' & [= <- <-] & E). congruence.
    + discriminate.
    + intros (a' & b' & [= <- <-] & E). congruence.
  - split; [discriminate|]. intros (a & b & E & _). discriminate.
Qed.

(** writing the whole string = writing the two sides, then joining them *)
Lemma its_to_rsmi_str_join eh J :
  its_to_rsmi_str rd_write true eh false J =
  match its_to_rsmi_s_opt (rd_write true) eh J with Some (a, b) => Ok (a ++ ">>" ++ b) | None => RNone end.
Proof.
  unfold its_to_rsmi_str, graph_to_rsmi_s, graph_to_smi_s, its_to_rsmi_s_opt, its_to_wmols_opt, its_to_graphs_opt, its_to_graphs.
  destruct eh; cbn [smi_graph fst snd];
    (destruct (graph_to_wmol _) as [wr|]; [|reflexivity]);
    (destruct (graph_to_wmol _) as [wp|]; [|destruct (rd_write true wr); reflexivity]);
    destruct (rd_write true wr), (rd_write true wp); reflexivity.
Qed.

Lemma its_to_rsmi_str_plain eh J s' :
  its_to_rsmi_str rd_write true eh false J = Ok s' <->
  exists a b, its_to_rsmi_s_opt (rd_write true) eh J = Some (a, b) /\ s' = a ++ ">>" ++ b.
Proof.
  rewrite its_to_rsmi_str_join. destruct (its_to_rsmi_s_opt (rd_write true) eh J) as [[a b]|]; split.
  - intros [= <-]. exists a, b. auto.
  - intros (a' & b' & [= <- <-] & ->). reflexivity.
  - discriminate.
  - intros (a' & b' & E & _). discriminate.
Qed.

Lemma its_to_rsmi_s_is_opt (I : its) : its_to_rsmi_s (rd_write true) I = its_to_rsmi_s_opt (rd_write true) false I.
Proof. reflexivity. Qed.

(** ** the round trip of the WHOLE reaction string *)
(** the whole-string calls of a round trip, seen as calls on the two sides; what is written splits again *)
Lemma whole_string_sides eh s r p J s' :
  (forall w s, rd_write true w = Some s -> has_gt s = false) ->
  rsmi_parts s = Some (r, p) -> rsmi_to_its_str rd_read default_ropts s = Ok J -> its_to_rsmi_str rd_write true eh false J = Ok s' ->
  exists r' p', rsmi_to_its_s (rd_read true) r p = Some J /\ its_to_rsmi_s_opt (rd_write true) eh J = Some (r', p') /\
                rsmi_parts s' = Some (r', p').
Proof.
  intros W0 Ps E1 E2.
  apply rsmi_to_its_str_default in E1. destruct E1 as (a & b & Pa & E1). rewrite Ps in Pa. inversion Pa; subst a b.
  apply its_to_rsmi_str_plain in E2. destruct E2 as (r' & p' & E2 & ->). exists r', p'. split; [exact E1|]. split; [exact E2|].
  destruct (its_to_rsmi_written _ (rd_write true) eh J r' p' E2) as (wr & wp & _ & _ & X & Y).
  apply rsmi_parts_join; [exact (W0 wr r' X)|exact (W0 wp p' Y)].
Qed.

Variable ok : mgraph -> Prop.

Theorem rsmi_string_roundtrip :
  (forall w s, rd_write true w = Some s -> has_gt s = false) ->
  R2 string (rd_read true) (rd_write true) ok ->
  forall s r p mr mp, rsmi_parts s = Some (r, p) -> rd_read true r = Some mr -> rd_read true p = Some mp -> rmol_ok mr -> rmol_ok mp ->
  let G := graph_of mr in let H := graph_of mp in
  wf G -> wf H -> same_nodes G H -> orders_pos G -> orders_pos H ->
  forall J s', rsmi_to_its_str rd_read default_ropts s = Ok J -> its_to_rsmi_str rd_write true false false J = Ok s' ->
  J = its_construct G H /\
  exists r' p', rsmi_parts s' = Some (r', p') /\
  exists mr' mp', rd_read true r' = Some mr' /\ rd_read true p' = Some mp' /\ rmol_ok mr' /\ rmol_ok mp' /\
                  geq_sel (graph_of mr') (smi_graph G (hlist J)) /\ geq_sel (graph_of mp') (smi_graph H (hlist J)).
Proof.
  intros W0 HR s r p mr mp Ps Rr Rp Okr Okp G H WG WH S PG PH J s' E1 E2.
  destruct (whole_string_sides false s r p J s' W0 Ps E1 E2) as (r' & p' & F1 & F2 & Ps').
  destruct (rsmi_pipeline_hydrogens string (rd_read true) (rd_write true) ok HR r p mr mp Rr Rp Okr Okp WG WH S PG PH J r' p' F1 F2)
    as (EJ & K).
  split; [exact EJ|]. exists r', p'. split; [exact Ps'|exact K].
Qed.

(** the same with the writer option explicit_hydrogen=True, relative to R1 *)
Theorem rsmi_string_roundtrip_explicit :
  (forall w s, rd_write true w = Some s -> has_gt s = false) ->
  R1 string (rd_read true) (rd_write true) ->
  forall s r p mr mp, rsmi_parts s = Some (r, p) -> rd_read true r = Some mr -> rd_read true p = Some mp -> rmol_ok mr -> rmol_ok mp ->
  let G := graph_of mr in let H := graph_of mp in
  wf G -> wf H -> same_nodes G H -> orders_pos G -> orders_pos H ->
  forall J s', rsmi_to_its_str rd_read default_ropts s = Ok J -> its_to_rsmi_str rd_write true true false J = Ok s' ->
  J = its_construct G H /\
  exists r' p', rsmi_parts s' = Some (r', p') /\
  exists mr' mp', rd_read true r' = Some mr' /\ rd_read true p' = Some mp' /\ rmol_ok mr' /\ rmol_ok mp' /\
                  geq_sel (graph_of mr') G /\ geq_sel (graph_of mp') H.
Proof.
  intros W0 HR s r p mr mp Ps Rr Rp Okr Okp G H WG WH S PG PH J s' E1 E2.
  destruct (whole_string_sides true s r p J s' W0 Ps E1 E2) as (r' & p' & F1 & F2 & Ps').
  destruct (rsmi_pipeline_explicit string (rd_read true) (rd_write true) HR r p mr mp Rr Rp Okr Okp WG WH S PG PH J r' p' F1 F2)
    as (EJ & K).
  split; [exact EJ|]. exists r', p'. split; [exact Ps'|exact K].
Qed.
End Lift.

(** * non-vacuity: the contracts transfer along any encoding of the abstract strings as real strings, so the reader/writer
    pair of C01_R1_nonvacuous / C01_R2_nonvacuous gives a pair over Coq strings that satisfies every premise *)
Section Transfer.
Variable A : Type.
Variable rdA : A -> option rmol.
Variable wrA : wmol -> option A.
Variable enc : A -> string.
Variable dec : string -> option A.
Hypothesis dec_enc : forall a, dec (enc a) = Some a.
Definition rd_of (s : string) : option rmol := match dec s with Some a => rdA a | None => None end.
Definition wr_of (w : wmol) : option string := option_map enc (wrA w).

Lemma R1_transfer : R1 A rdA wrA -> R1 string rd_of wr_of.
Proof.
  intros HR s0 m0 g w s Rd W Gq Am Gw Wr. unfold rd_of in Rd. destruct (dec s0) as [a0|] eqn:D; [|discriminate].
  unfold wr_of in Wr. destruct (wrA w) as [a|] eqn:Wa; [|discriminate]. inversion Wr; subst s.
  destruct (HR a0 m0 g w a Rd W Gq Am Gw Wa) as (m & Rm & K). exists m. split; [|exact K]. unfold rd_of. rewrite dec_enc. exact Rm.
Qed.

Lemma R2_transfer ok : R2 A rdA wrA ok -> R2 string rd_of wr_of ok.
Proof.
  intros (P1 & P2 & P3 & P4). split; [|split; [|split]].
  - intros s m Rd. unfold rd_of in Rd. destruct (dec s) as [a|]; [|discriminate]. eapply P1; eauto.
  - exact P2.
  - exact P3.
  - intros g w s Og W Am Gw Wr. unfold wr_of in Wr. destruct (wrA w) as [a|] eqn:Wa; [|discriminate]. inversion Wr; subst s.
    destruct (P4 g w a Og W Am Gw Wa) as (m & Rm & K). exists m. split; [|exact K]. unfold rd_of. rewrite dec_enc. exact Rm.
Qed.
End Transfer.

Definition ex_enc (b : bool) : string := if b then "R" else "P".
Definition ex_dec (s : string) : option bool := if String.eqb s "R" then Some true else if String.eqb s "P" then Some false else None.
Definition ex_sread (san : bool) (s : string) : option rmol := rd_of bool ex_read ex_dec s.
Definition ex_swrite (san : bool) (w : wmol) : option string := wr_of bool ex_write ex_enc w.

Example C01_split_nonvacuous :
  split_arrow "A.B>>C" = ["A.B"; "C"] /\ split_arrow "A>B>C" = ["A>B>C"] /\ split_arrow "A>>>B" = ["A"; ">B"] /\
  split_arrow "A>>B>>C" = ["A"; "B"; "C"] /\ split_arrow "" = [""] /\ split_arrow ">>" = [""; ""] /\
  rsmi_parts "A>>B>>C" = None /\ rsmi_parts "A>B>C" = None /\ rsmi_parts ">>" = Some ("", "").
Proof. repeat split; reflexivity. Qed.

Example C01_rsmi_string_nonvacuous :
  (forall w s, ex_swrite true w = Some s -> has_gt s = false) /\
  R2 string (ex_sread true) (ex_swrite true) ex_ok /\ R1 string (ex_sread true) (ex_swrite true) /\
  rsmi_parts "R>>P" = Some ("R", "P") /\ ex_sread true "R" = Some ex_mr /\ ex_sread true "P" = Some ex_mp /\
  exists J, rsmi_to_its_str ex_sread default_ropts "R>>P" = Ok J /\
            its_to_rsmi_str ex_swrite true false false J = Ok "R>>P" /\ its_to_rsmi_str ex_swrite true true false J = Ok "R>>P" /\
            its_to_rsmi_str ex_swrite true false true J = Ok "R>>P".
Proof.
  assert (forall a, ex_dec (ex_enc a) = Some a) as DE by (intros [|]; reflexivity).
  split; [|split; [|split]].
  - intros w s E. unfold ex_swrite, wr_of, ex_write in E. cbn in E. inversion E. destruct (existsb _ _); reflexivity.
  - apply R2_transfer; [exact DE|exact C01_R2_nonvacuous].
  - apply R1_transfer; [exact DE|apply C01_R1_nonvacuous].
  - split; [reflexivity|]. split; [reflexivity|]. split; [reflexivity|].
    eexists. split; [reflexivity|]. split; [vm_compute; reflexivity|]. split; vm_compute; reflexivity.
Qed.

Example C01_rsmi_fail_nonvacuous :
  rsmi_to_its_str ex_sread default_ropts "R>P" = Raise /\ rsmi_to_its_str ex_sread default_ropts "R>>X" = Raise /\
  rsmi_to_graph_s ex_sread true true true "R>>X" = (Some (graph_of ex_mr), None) /\
  clean_wc_s "R" = Raise.
Proof. repeat split; reflexivity. Qed.
