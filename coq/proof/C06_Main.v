(** C06 — the statements exported to props/C06.v (about [find], the
    function the correspondence evaluates) and the non-vacuity examples. *)
From Coq Require Import List NArith Bool Arith Lia Permutation SetoidList Relations.
From SK Require Import lib.LGraph lib.Mono lib.Reach lib.C01_GraphLemmas model.C06_Model lib.C06_Spec
  proof.C06_All proof.C06_Comp proof.C06_Comps proof.C06_CompSem proof.C06_CompNoDup proof.C06_Prefilter proof.C06_Table.
Import ListNotations.

Lemma oracle_ok_meaning (enum : list N -> list N -> list mapping) (H P : graph) :
  oracle_ok enum H P <->
  (let L := enum (node_ids H) (node_ids P) in
   (forall m, In m L -> is_mono H P m) /\
   (forall m, is_mono H P m -> exists m', In m' L /\ Permutation m m') /\
   NoDupA (@Permutation (N * N)) L) /\
  (forall hc pc, In hc (comps H) -> In pc (comps P) -> length pc <= length hc ->
   let L := enum hc pc in
   (forall m, In m L -> is_mono_on H P hc pc m) /\
   (forall m, is_mono_on H P hc pc m -> exists m', In m' L /\ Permutation m m') /\
   NoDupA (@Permutation (N * N)) L).
Proof. split; intros Hx; exact Hx. Qed.

Section Oracle.
Variable enum : list N -> list N -> list mapping.

Theorem comp_spec (strict : bool) (H P : graph) :
  gwf H -> gwf P -> oracle_ok enum H P ->
  exists T0 : N, forall T : N, (T0 <= T)%N ->
  let R := find enum (Cfg 1 0 T strict false) H P in
  let hcc := length (comps H) in
  let pcc := length (comps P) in
  NoDupA (@Permutation (N * N)) R /\
  if (0 <? pcc) && (pcc <? hcc) && strict then R = []
  else if hcc <? pcc then
    (forall m, In m R -> is_mono H P m) /\
    (forall m, is_mono H P m -> exists m', In m' R /\ Permutation m m')
  else
    (forall m, In m R -> is_mono H P m /\ separating H P m) /\
    (forall m, is_mono H P m -> separating H P m -> exists m', In m' R /\ Permutation m m').
Proof.
  intros HwfH HwfP Hor. exists (comp_bound enum strict H P). intros T HT. cbv zeta.
  rewrite (find_comp_unlimited enum T strict H P HT). split.
  - exact (comp_unl_nodup enum H P HwfH HwfP Hor strict).
  - exact (comp_unl_spec enum H P HwfH HwfP Hor strict).
Qed.

(** the call with every option omitted: component-aware, strict component count, threshold 5000 *)
Theorem default_call_spec (H P : graph) :
  gwf H -> gwf P -> oracle_ok enum H P -> not_binding enum 1 true H P 5000 ->
  exists R, find_api enum SDefault None None None None H P = Result R /\
  let hcc := length (comps H) in
  let pcc := length (comps P) in
  NoDupA (@Permutation (N * N)) R /\
  if (0 <? pcc) && (pcc <? hcc) then R = []
  else if hcc <? pcc then
    (forall m, In m R -> is_mono H P m) /\
    (forall m, is_mono H P m -> exists m', In m' R /\ Permutation m m')
  else
    (forall m, In m R -> is_mono H P m /\ separating H P m) /\
    (forall m, is_mono H P m -> separating H P m -> exists m', In m' R /\ Permutation m m').
Proof.
  intros HwfH HwfP Hor Hnb. exists (find enum (Cfg 1 0 5000 true false) H P). split; [reflexivity|].
  destruct (comp_spec true H P HwfH HwfP Hor) as (T0 & HT0). specialize (HT0 (N.max 5000 T0) ltac:(lia)).
  cbv zeta in *. rewrite (Hnb (N.max 5000 T0)), andb_true_r in HT0 by lia. exact HT0.
Qed.

Theorem bt_spec_unlimited (strict : bool) (H P : graph) :
  exists T0 : N, forall T : N, (T0 <= T)%N ->
  find enum (Cfg 2 0 T strict false) H P =
  match find enum (Cfg 1 0 T strict false) H P with
  | [] => find enum (Cfg 0 0 T strict false) H P
  | primary => primary
  end.
Proof.
  exists (N.max (comp_bound enum strict H P) (lenN (enum (node_ids H) (node_ids P)))).
  intros T HT.
  rewrite (find_bt_unlimited enum T strict H P) by lia.
  rewrite (find_comp_unlimited enum T strict H P) by lia.
  rewrite (find_all_unlimited enum T strict H P) by lia.
  reflexivity.
Qed.

(** the case the default configuration meets on mixtures: strict_cc_count, pattern with
    fewer components than the host (e.g. a connected pattern in a host of several
    molecules).  The component-aware search returns [] by the documented parameter, so
    the fallback strategy must return - and does return - the exhaustive set. *)
Theorem bt_strict_fallback (H P : graph) :
  vf2_contract enum H P (node_ids H) (node_ids P) ->
  0 < length (comps P) -> length (comps P) < length (comps H) ->
  exists T0 : N, forall T : N, (T0 <= T)%N ->
  let R := find enum (Cfg 2 0 T true false) H P in
  find enum (Cfg 1 0 T true false) H P = [] /\
  R = find enum (Cfg 0 0 T true false) H P /\
  (forall m, In m R -> is_mono H P m) /\
  (forall m, is_mono H P m -> exists m', In m' R /\ Permutation m m') /\
  NoDupA (@Permutation (N * N)) R.
Proof.
  intros Hc Hpos Hlt.
  exists (N.max (comp_bound enum true H P) (lenN (enum (node_ids H) (node_ids P)))).
  intros T HT. cbv zeta.
  assert (Ec : comp_unl enum true H P = []).
  { unfold comp_unl. destruct (length (comps P) =? 0) eqn:E0; [apply Nat.eqb_eq in E0; lia|].
    destruct (length (comps H) <? length (comps P)) eqn:E1; [apply Nat.ltb_lt in E1; lia|].
    apply Nat.ltb_lt in Hlt. rewrite Hlt. reflexivity. }
  rewrite (find_bt_unlimited enum T true H P) by lia.
  rewrite (find_comp_unlimited enum T true H P) by lia.
  rewrite (find_all_unlimited enum T true H P) by lia.
  unfold bt_unl_result. rewrite Ec. split; [reflexivity|]. split; [reflexivity|]. exact Hc.
Qed.

(** the per-component embedding list [percc_of] written out, for the statement of [limits] *)
Definition embeddings_of_component (H : graph) (pc : list N) : list (nat * mapping) :=
  flat_map (fun ih => map (pair (fst ih)) (enum (snd ih) pc))
           (filter (fun ih => length pc <=? length (snd ih)) (index_from 0 (comps H))).

Lemma embeddings_of_component_eq H pc : embeddings_of_component H pc = percc_of enum H pc.
Proof. reflexivity. Qed.

Theorem limits (strat : N) (strict : bool) (H P : graph) :
  exists T0 : N, forall T : N, (T0 <= T)%N ->
  let U := find enum (Cfg strat 0 T strict false) H P in
  let Uall := find enum (Cfg 0 0 T strict false) H P in
  forall maxr thr : N,
  let R := find enum (Cfg strat maxr thr strict false) H P in
  R = limit maxr thr U \/
  (strat <> 0%N /\
   (exists pc, In pc (comps P) /\ (thr < lenN (embeddings_of_component H pc))%N) /\
   (R = [] \/ R = limit maxr thr Uall)).
Proof.
  exists (N.max (comp_bound enum strict H P) (lenN (enum (node_ids H) (node_ids P)))).
  intros T HT. cbv zeta. intros maxr thr.
  rewrite (find_all_unlimited enum T strict H P) by lia.
  assert (Hbt : forall s m t, s <> 0%N -> s <> 1%N ->
            find enum (Cfg s m t strict false) H P = find enum (Cfg 2 m t strict false) H P).
  { intros [|[q|q|]] m t A B; try reflexivity; contradiction. }
  destruct (N.eq_dec strat 0) as [->|H0]; [left; rewrite (find_all_unlimited enum T strict H P) by lia; apply find_all_limits|].
  destruct (N.eq_dec strat 1) as [->|H1].
  - rewrite (find_comp_unlimited enum T strict H P) by lia.
    destruct (find_comp_limits enum maxr thr strict H P) as [E|[E G]]; [left; exact E|].
    right. split; [discriminate|]. split; [|left; exact E].
    destruct G as (pc & I & Hlt). exists pc. rewrite embeddings_of_component_eq. auto.
  - (* any other code dispatches to the fallback strategy *)
    rewrite !(Hbt strat _ _ H0 H1), (find_bt_unlimited enum T strict H P) by lia.
    destruct (find_bt_limits enum maxr thr strict H P) as [E|[G E]]; cbv zeta in E; [left; exact E|].
    right. split; [exact H0|]. split; [|right; exact E].
    destruct G as (pc & I & Hlt). exists pc. rewrite embeddings_of_component_eq. auto.
Qed.

(** the cheap pre-filter can only empty the result *)
Theorem prefilter_only_empties (c : cfg) (H P : graph) :
  find enum c H P = [] \/
  find enum c H P = find enum (Cfg (c_strat c) (c_maxr c) (c_thr c) (c_strict c) false) H P.
Proof.
  unfold find. destruct (c_pref c && quick_pre_filter H P (c_thr c)); [left; reflexivity|right; reflexivity].
Qed.
End Oracle.

(** ---------- executable sanity of the input premise ---------- *)
Lemma gwfb_spec g : gwfb g = true -> gwf g.
Proof.
  unfold gwfb, gwf. intros E. apply andb_prop in E. destruct E as [E1 E2]. split; [apply nodupb_spec; exact E1|].
  intros a b x I. rewrite forallb_forall in E2. specialize (E2 _ I). cbv beta iota in E2.
  apply andb_prop in E2. destruct E2 as [E2 E3]. apply andb_prop in E2. destruct E2 as [Ea Eb].
  apply LGraph.mem_spec in Ea. apply LGraph.mem_spec in Eb.
  split; [exact Ea|]. split; [exact Eb|]. intros ->. rewrite N.eqb_refl in E3. discriminate.
Qed.

Lemma simpleb_spec (es : list (N * N * elab)) : simpleb es = true -> simple es.
Proof.
  induction es as [|[[a b] x] r IH]; simpl; intros E; [constructor|].
  apply andb_prop in E. destruct E as [E1 E2]. constructor; [|apply IH; exact E2].
  destruct (find_edge a b r); [discriminate|reflexivity].
Qed.

(** the flag the model evaluates on every case implies the input premises of the theorems *)
Lemma wfb_spec g : wfb g = true -> LGraph.wf g /\ gwf g.
Proof.
  unfold wfb. intros E. apply andb_prop in E. destruct E as [E1 E2].
  pose proof (gwfb_spec g E1) as Hg. split; [|exact Hg].
  apply wf_intro; [apply Hg|apply Hg|apply simpleb_spec; exact E2].
Qed.

(** the two flags of an order-sensitive case imply every premise of the theorems for the
    oracle that [run_list] and [run_tr_list] use *)
Theorem run_list_premises (H P : graph) (t : table) :
  wfb H && wfb P = true -> table_ok2 H P t = true ->
  gwf H /\ gwf P /\ LGraph.wf P /\ oracle_ok (lookup_or t H P) H P.
Proof.
  intros Ew Et. apply andb_prop in Ew. destruct Ew as [EH EP].
  destruct (wfb_spec H EH) as [_ HgH]. destruct (wfb_spec P EP) as [HwP HgP].
  split; [exact HgH|]. split; [exact HgP|]. split; [exact HwP|].
  exact (table_ok2_oracle_ok H P HgH HgP t Et).
Qed.

(** ---------- example graphs, the verified enumerator as oracle, non-vacuity examples ---------- *)
(** host  C1-C2-C3 . C4-O5   pattern  C10 . O11  (element codes 1 = C, 2 = O; bond code 1) *)
Definition cC : nlab := ([1%N], 0%N).
Definition cO : nlab := ([2%N], 0%N).
Definition Hx : graph := LG [(1, cC); (2, cC); (3, cC); (4, cC); (5, cO)]%N [(1, 2, [1]); (2, 3, [1]); (4, 5, [1])]%N.
Definition Px : graph := LG [(10, cC); (11, cO)]%N [].
Definition P1 : graph := LG [(10, cC)]%N [].
Definition H2 : graph := LG [(4, cC); (5, cO)]%N [(4, 5, [1])]%N.
Definition ex_enum := monos_on Hx Px.

Lemma Hx_wf : gwf Hx. Proof. apply gwfb_spec. vm_compute. reflexivity. Qed.
Lemma Px_wf : gwf Px. Proof. apply gwfb_spec. vm_compute. reflexivity. Qed.
Lemma P1_wf : gwf P1. Proof. apply gwfb_spec. vm_compute. reflexivity. Qed.
Lemma H2_wf : gwf H2. Proof. apply gwfb_spec. vm_compute. reflexivity. Qed.

Lemma monos_on_oracle_ok H P : gwf H -> gwf P -> oracle_ok (monos_on H P) H P.
Proof.
  intros HwfH HwfP. split.
  - apply monos_on_contract; [exact HwfP|apply HwfH|apply HwfP].
  - intros hc pc Ihc Ipc _. apply monos_on_contract; [exact HwfP| |].
    + apply (comps_class H HwfH hc Ihc).
    + apply (comps_class P HwfP pc Ipc).
Qed.

Definition ex_all := find (monos_on Hx Px) (Cfg 0 0 5000 true false) Hx Px.
Definition ex_comp := find (monos_on Hx Px) (Cfg 1 0 5000 true false) Hx Px.
Definition ex_bt := find (monos_on Hx Px) (Cfg 2 0 5000 true false) Hx Px.

(** the premises of C06_all_exact are satisfiable and its conclusion is not trivial: 4 matches *)
Example ex_all_exact :
  length ex_all = 4 /\
  (forall m, In m ex_all -> is_mono Hx Px m) /\
  (forall m, is_mono Hx Px m -> exists m', In m' ex_all /\ Permutation m m') /\
  NoDupA (@Permutation (N * N)) ex_all.
Proof.
  split; [vm_compute; reflexivity|].
  apply (all_exact (monos_on Hx Px) 5000 true Hx Px).
  - apply (proj1 (monos_on_oracle_ok Hx Px Hx_wf Px_wf)).
  - vm_compute. discriminate.
Qed.

(** component-aware: C10 -> C4 with O11 -> O5 is a monomorphism but not separating; 3 of the 4 remain *)
Example ex_comp_value :
  ex_comp = [[(10, 1); (11, 5)]; [(10, 2); (11, 5)]; [(10, 3); (11, 5)]]%N /\ length ex_all = 4.
Proof. split; vm_compute; reflexivity. Qed.

Example ex_comp_nodup : NoDupA (@Permutation (N * N)) ex_comp.
Proof.
  replace ex_comp with (comp_unl (monos_on Hx Px) true Hx Px) by (vm_compute; reflexivity).
  exact (comp_unl_nodup (monos_on Hx Px) Hx Px Hx_wf Px_wf (monos_on_oracle_ok Hx Px Hx_wf Px_wf) true).
Qed.

Example ex_comp_spec :
  (forall m, In m ex_comp -> is_mono Hx Px m /\ separating Hx Px m) /\
  (forall m, is_mono Hx Px m -> separating Hx Px m -> exists m', In m' ex_comp /\ Permutation m m').
Proof.
  pose proof (comp_unl_spec (monos_on Hx Px) Hx Px Hx_wf Px_wf (monos_on_oracle_ok Hx Px Hx_wf Px_wf) true) as Hs.
  cbv zeta in Hs.
  replace (comp_unl (monos_on Hx Px) true Hx Px) with ex_comp in Hs by (vm_compute; reflexivity).
  replace (length (comps Hx)) with 2 in Hs by (vm_compute; reflexivity).
  replace (length (comps Px)) with 2 in Hs by (vm_compute; reflexivity).
  exact Hs.
Qed.

(** strict_cc_count: more host components than pattern components *)
Example ex_strict :
  find (monos_on Hx P1) (Cfg 1 0 5000 true false) Hx P1 = [] /\
  length (find (monos_on Hx P1) (Cfg 1 0 5000 false false) Hx P1) = 4 /\
  length (find (monos_on Hx P1) (Cfg 2 0 5000 true false) Hx P1) = 4.
Proof. repeat apply conj; vm_compute; reflexivity. Qed.

(** fewer host components than pattern components: the exhaustive search is used *)
Example ex_fewer_host_components :
  find (monos_on H2 Px) (Cfg 1 0 5000 true false) H2 Px = [[(11, 5); (10, 4)]]%N /\
  length (comps H2) = 1 /\ length (comps Px) = 2.
Proof. repeat apply conj; vm_compute; reflexivity. Qed.

(** fallback: component-aware set when non-empty ... *)
Example ex_bt_primary : ex_bt = ex_comp /\ ex_comp <> [].
Proof. split; [vm_compute; reflexivity|vm_compute; discriminate]. Qed.
(** ... exhaustive set otherwise (strict guard empties the component-aware result) *)
Example ex_bt_fallback :
  find (monos_on Hx P1) (Cfg 2 0 5000 true false) Hx P1 = find (monos_on Hx P1) (Cfg 0 0 5000 true false) Hx P1 /\
  find (monos_on Hx P1) (Cfg 1 0 5000 true false) Hx P1 = [].
Proof. split; vm_compute; reflexivity. Qed.

(** the witness of the seeded change C06-r2-2: hydroxyl pattern C10-O11(H) in the mixture
    ethanol + acetic acid + water (3 components), default strict_cc_count: comp = [] by the
    parameter, bt = all = the two C-OH sites.  Labels: ([element; charge], hcount), C = 1,
    O = 2, charge 0 = 1; bond orders 1, 2. *)
Definition Mix : graph :=
  LG [(1, ([1; 1], 3)); (2, ([1; 1], 2)); (3, ([2; 1], 1)); (4, ([1; 1], 3)); (5, ([1; 1], 0));
      (6, ([2; 1], 0)); (7, ([2; 1], 1)); (8, ([2; 1], 2))]%N
     [(1, 2, [1]); (2, 3, [1]); (4, 5, [1]); (5, 6, [2]); (5, 7, [1])]%N.
Definition COH : graph := LG [(10, ([1; 1], 0)); (11, ([2; 1], 1))]%N [(10, 11, [1])]%N.

Lemma Mix_wf : gwf Mix. Proof. apply gwfb_spec. vm_compute. reflexivity. Qed.
Lemma COH_wf : gwf COH. Proof. apply gwfb_spec. vm_compute. reflexivity. Qed.

Example ex_bt_strict_mixture :
  length (comps Mix) = 3 /\ length (comps COH) = 1 /\
  find (monos_on Mix COH) (Cfg 1 0 5000 true false) Mix COH = [] /\
  find (monos_on Mix COH) (Cfg 2 0 5000 true false) Mix COH = find (monos_on Mix COH) (Cfg 0 0 5000 true false) Mix COH /\
  find (monos_on Mix COH) (Cfg 2 0 5000 true false) Mix COH = [[(11, 3); (10, 2)]; [(11, 7); (10, 5)]]%N.
Proof. repeat apply conj; vm_compute; reflexivity. Qed.

(** the premises of [bt_strict_fallback] hold for it *)
Example ex_bt_strict_mixture_premises :
  vf2_contract (monos_on Mix COH) Mix COH (node_ids Mix) (node_ids COH) /\
  0 < length (comps COH) /\ length (comps COH) < length (comps Mix).
Proof.
  split; [|split; vm_compute; lia].
  apply monos_on_contract; [exact COH_wf|apply Mix_wf|apply COH_wf].
Qed.

(** a recorded table in an order different from the verified enumerator's (as networkx
    produces) passes the monitor, is used by the run, and the theorems apply to it *)
Definition ex_table : table :=
  [([1; 2; 3; 4; 5], [10; 11], [[(10, 4); (11, 5)]; [(10, 3); (11, 5)]; [(10, 1); (11, 5)]; [(10, 2); (11, 5)]]);
   ([4; 5], [11], [[(11, 5)]])]%N.
Example ex_table_ok :
  table_ok2 Hx Px ex_table = true /\
  find (lookup_or ex_table Hx Px) (Cfg 0 3 5000 true false) Hx Px = [[(10, 4); (11, 5)]; [(10, 3); (11, 5)]; [(10, 1); (11, 5)]]%N /\
  length (find (lookup_or ex_table Hx Px) (Cfg 1 0 5000 true false) Hx Px) = 3 /\
  oracle_ok (lookup_or ex_table Hx Px) Hx Px.
Proof.
  split; [vm_compute; reflexivity|]. split; [vm_compute; reflexivity|]. split; [vm_compute; reflexivity|].
  apply run_list_premises; vm_compute; reflexivity.
Qed.
(** a table with a wrong entry (one match missing) is rejected by the monitor *)
Example ex_table_bad :
  table_ok2 Hx Px [([1; 2; 3; 4; 5], [10; 11], [[(10, 4); (11, 5)]; [(10, 3); (11, 5)]; [(10, 1); (11, 5)]])]%N = false.
Proof. vm_compute. reflexivity. Qed.

(** the default call: [] on the mixture (3 host components, 1 pattern component), the 3
    separating matches for Hx / Px; 5000 is not binding there (the result is stable from 4 on) *)
Example ex_default_call :
  find_api (monos_on Mix COH) SDefault None None None None Mix COH = Result [] /\
  find_api (monos_on Hx Px) SDefault None None None None Hx Px = Result ex_comp /\
  find_api (monos_on Hx Px) (SStr [66; 84]%N) (Some 1%N) None None None Hx Px = Result (firstn 1 ex_comp) /\
  find_api (monos_on Hx Px) (SStr [98; 116; 32]%N) None None None None Hx Px = ValueError /\
  find_api (monos_on Hx Px) (SMember 3) None None None None Hx Px = NotImplemented.
Proof. repeat apply conj; vm_compute; reflexivity. Qed.

Example ex_not_binding : not_binding (monos_on Hx Px) 1 true Hx Px 5000.
Proof.
  intros T' HT. apply find_comp_stable; [vm_compute; discriminate|exact HT].
Qed.

(** limits: truncation, emptying, and the per-component enumeration guard *)
Example ex_limits :
  find (monos_on Hx Px) (Cfg 0 2 5000 true false) Hx Px = firstn 2 ex_all /\
  find (monos_on Hx Px) (Cfg 0 0 3 true false) Hx Px = [] /\
  find (monos_on Hx Px) (Cfg 1 2 5000 true false) Hx Px = firstn 2 ex_comp /\
  find (monos_on Hx Px) (Cfg 1 0 2 true false) Hx Px = [] /\
  find (monos_on Hx Px) (Cfg 2 1 5000 true false) Hx Px = firstn 1 ex_comp.
Proof. repeat apply conj; vm_compute; reflexivity. Qed.

(** the second disjunct of [limits] is reachable: with threshold 3 the component-aware
    strategy returns [] although its unlimited result has exactly 3 mappings (not past
    the threshold): component {C10} has 4 embeddings into the host components *)
Lemma guard_reachable :
  find (monos_on Hx Px) (Cfg 1 0 3 true false) Hx Px = [] /\
  limit 0 3 ex_comp = ex_comp /\ length ex_comp = 3 /\
  find (monos_on Hx Px) (Cfg 2 0 3 true false) Hx Px = [].
Proof. repeat apply conj; vm_compute; reflexivity. Qed.

Example ex_components : comps Hx = [[1; 2; 3]; [4; 5]]%N /\ comps Px = [[10]; [11]]%N.
Proof. split; vm_compute; reflexivity. Qed.

(** pre-filter exits: no candidate for a pattern node (nitrogen), and the estimate guard (threshold 0) *)
Definition Pn : graph := LG [(10%N, ([3%N], 0%N))] [].
Example ex_prefilter_empties :
  quick_pre_filter Hx Pn 5000 = true /\ find (monos_on Hx Pn) (Cfg 0 0 5000 true true) Hx Pn = [] /\
  quick_pre_filter Hx Px 0 = true.
Proof. repeat apply conj; vm_compute; reflexivity. Qed.

Example ex_prefilter_sound : forall m, ~ is_mono Hx Pn m.
Proof.
  assert (Hw : LGraph.wf Pn) by (apply wfb_spec; vm_compute; reflexivity).
  assert (Hq : quick_pre_filter Hx Pn 5000 = true) by (vm_compute; reflexivity).
  destruct (prefilter_sound Hx Pn 5000 Hw Hq) as [Hno|(pre & suf & E & Hlt)].
  - exact Hno.
  - exfalso. destruct pre as [|p [|q pre]]; simpl in E.
    + vm_compute in Hlt. discriminate.
    + inversion E; subst. vm_compute in Hlt. discriminate.
    + inversion E.
Qed.

Example ex_prefilter :
  find (monos_on Hx Px) (Cfg 1 0 5000 true true) Hx Px = ex_comp.
Proof. vm_compute. reflexivity. Qed.
