(** C03 — clause (b) end to end in the default mode: from conditions on the TEMPLATE alone to conservation in every
    reaction proposed through the explicit-hydrogen path. *)
From Coq Require Import List NArith ZArith Bool Lia.
From SK Require Import lib.Tok lib.LGraph model.C03_Model proof.C03_Proof proof.C03_Glue proof.C03_Backward proof.C03_Skeleton
                       proof.C03_StripCounts proof.C03_StripExact proof.C03_StripCor proof.C03_DefaultBalance
                       proof.C03_ExplicitH proof.C03_Expand.
Import ListNotations.
Local Open Scope Z_scope.

(** the charge change of the prepared rule is the template's, taken over the kept atoms *)
Theorem default_rule_dQ (tpl rc : its) (l r : molg) :
  nodupb (node_ids tpl) = true -> (forall k a, In (k, a) (gnodes tpl) -> a_el (iH a) = a_el (iG a)) ->
  synrule tpl true = Some (rc, l, r) ->
  exists R : list N,
    (forall h, In h R <-> is_H_i tpl h = true /\ heavy_nbr (side0 iG eG tpl) h = true /\ heavy_nbr (side0 iH eH tpl) h = true) /\
    sumZ dQ rc = sumL dQ (filter (keepn R) (gnodes tpl)).
Proof.
  intros Hnd0 Hel H. destruct (synrule_default_exact tpl rc l r Hnd0 Hel H) as (R & Memb & (KK & _) & _).
  exists R. split; [exact Memb|]. unfold sumZ. clear - KK. induction KK as [|p q l1 l2 (E1 & E2 & E3) _ IH]; [reflexivity|].
  cbn [sumL fold_right]. fold (sumL dQ l1). fold (sumL dQ l2). rewrite IH. f_equal. unfold dQ.
  assert (a_ch (iG (snd p)) = a_ch (iG (snd q))) by (destruct (iG (snd p)), (iG (snd q)); inversion E2; reflexivity).
  assert (a_ch (iH (snd p)) = a_ch (iH (snd q))) by (destruct (iH (snd p)), (iH (snd q)); inversion E3; reflexivity). lia.
Qed.

Theorem default_rule_balanced (tpl rc : its) (l r : molg) :
  nodupb (node_ids tpl) = true -> (forall k a, In (k, a) (gnodes tpl) -> a_el (iH a) = a_el (iG a)) ->
  simple_edgesb (gedges tpl) = true -> synrule tpl true = Some (rc, l, r) -> tpl_condition tpl -> balancedb rc = true.
Proof.
  intros Hnd0 Hel Hs H Hcond.
  destruct (default_rule_H_balanced tpl rc l r Hnd0 Hel Hs H) as (R & K & NR & NK & Memb & HK & HB).
  destruct (default_rule_dQ tpl rc l r Hnd0 Hel H) as (R' & Memb' & HQ).
  destruct (Hcond R K NR NK Memb HK) as [Hval HQ0].
  pose proof (filter_keepn_ext R' R (gnodes tpl) (fun h => iff_trans (Memb' h) (iff_sym (Memb h)))) as ER.
  unfold balancedb. rewrite (HB Hval), HQ, ER, HQ0. reflexivity.
Qed.

(** end to end, the two routes of the default mode.  Direct route (the prepared pattern has no explicit hydrogen left, the
    usual case): glue on the substrate, then _explicit_h. *)
Theorem default_end_to_end_direct tpl rc l r host m T T' ms :
  nodupb (node_ids tpl) = true -> (forall k a, In (k, a) (gnodes tpl) -> a_el (iH a) = a_el (iG a)) ->
  simple_edgesb (gedges tpl) = true -> synrule tpl true = Some (rc, l, r) -> tpl_condition tpl ->
  wf_hostb host = true -> wf_rcb rc = true -> match_rcb host rc m = true -> glue host rc m = Some T ->
  explicit_h T = Some (T', ms) ->
  (forall e, elem_count e (fst (its_decompose T')) = elem_count e (snd (its_decompose T'))) /\
  total_charge (fst (its_decompose T')) = total_charge (snd (its_decompose T')) /\
  (forall e, elem_count e (fst (its_decompose T')) = elem_count e (mol_of_host host)) /\
  (forall a b, In a (node_ids host) -> In b (node_ids host) -> bondG T' a b = adj host a b).
Proof.
  intros Hnd0 Hel Hs H Hcond Hwh Hwr Hm Hg He.
  exact (explicit_h_conserve host rc m T T' ms Hwh Hwr Hm Hg (default_rule_balanced tpl rc l r Hnd0 Hel Hs H Hcond) He).
Qed.

(** Expanded route (the prepared pattern keeps explicit hydrogens): expand the matched atoms, glue along a re-match, _explicit_h. *)
Theorem default_end_to_end_expanded tpl rc l r host nodes m T T' ms :
  nodupb (node_ids tpl) = true -> (forall k a, In (k, a) (gnodes tpl) -> a_el (iH a) = a_el (iG a)) ->
  simple_edgesb (gedges tpl) = true -> synrule tpl true = Some (rc, l, r) -> tpl_condition tpl ->
  wf_hostb host = true -> wf_hostb (h_to_explicit host nodes) = true -> wf_rcb rc = true ->
  match_rcb (h_to_explicit host nodes) rc m = true -> glue (h_to_explicit host nodes) rc m = Some T ->
  explicit_h T = Some (T', ms) ->
  (forall e, elem_count e (fst (its_decompose T')) = elem_count e (snd (its_decompose T'))) /\
  total_charge (fst (its_decompose T')) = total_charge (snd (its_decompose T')) /\
  (forall e, elem_count e (fst (its_decompose T')) = elem_count e (mol_of_host host)) /\
  (forall a b, In a (node_ids host) -> In b (node_ids host) -> bondG T' a b = adj host a b).
Proof.
  intros Hnd0 Hel Hs H Hcond Hwh Hwx Hwr Hm Hg He.
  destruct (explicit_path host nodes rc m T T' ms Hwh Hwx Hwr Hm Hg He) as (A & B & C & D).
  destruct (D (default_rule_balanced tpl rc l r Hnd0 Hel Hs H Hcond)) as [D1 D2]. auto.
Qed.
