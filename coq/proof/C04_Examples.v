(** C04 — non-vacuity examples and the refutation witness (all by computation on closed terms). *)
From Coq Require Import List NArith ZArith Bool.
From SK Require Import lib.Tok lib.LGraph model.C03_Model model.C04_Model proof.C04_Glue proof.C04_Template proof.C04_Any proof.C04_Proof proof.C04_DefaultProof.
Import ListNotations.
Local Open Scope Z_scope.

(** methyl iodide + ammonia -> methylammonium + iodide, implicit hydrogens:
    [CH3:1][I:2].[NH3:3]>>[CH3:1][NH3+:3].[I-:2]   (C = 67, I = 73, N = 78) *)
Definition exG : hostg :=
  LG [(1%N, NA 67%N false 3 0 [73%N]); (2%N, NA 73%N false 0 0 [67%N]); (3%N, NA 78%N false 3 0 [])]
     [(1%N, 2%N, 2)].
Definition exH : hostg :=
  LG [(1%N, NA 67%N false 3 0 [78%N]); (3%N, NA 78%N false 3 1 [67%N]); (2%N, NA 73%N false 0 (-1) [])]
     [(1%N, 3%N, 2)].

Example ex_hyps : pair_wfb exG exH = true /\ no_explicit_H exG = true /\ centre_carries (its_construct exG exH) = true.
Proof. vm_compute. repeat split; reflexivity. Qed.
Example ex_centre_nonempty : length (gnodes (get_rc (its_construct exG exH))) = 3%nat.
Proof. vm_compute. reflexivity. Qed.
Definition ex_regen (core invert : bool) : bool :=
  match regenerate core invert exG exH with
  | Some T => regen_exact T (if invert then exH else exG) (if invert then exG else exH)
  | None => false
  end.
Example ex_regenerates : ex_regen true false = true /\ ex_regen false false = true /\ ex_regen true true = true /\ ex_regen false true = true.
Proof. vm_compute. repeat split; reflexivity. Qed.
Definition ex_match (core invert : bool) : bool :=
  match rule_of core invert exG exH with
  | Some (rc, l, r) => match_okb (substrate invert exG exH) (pattern_of l) (id_map (node_ids (pattern_of l)))
                       && match_rcb (substrate invert exG exH) rc (id_map (node_ids (pattern_of l)))
  | None => false
  end.
Example ex_matches : ex_match true false = true /\ ex_match false true = true.
Proof. vm_compute. repeat split; reflexivity. Qed.
(** the theorems' conclusions are not trivially true: a wrong partner graph is not "regenerated" *)
Example ex_regen_discriminates :
  match regenerate false false exG exH with Some T => regen_exact T exG exG | None => true end = false.
Proof. vm_compute. reflexivity. Qed.
Example ex_its_list : length (its_list true false exG exH [identity true false exG exH]) = 1%nat.
Proof. vm_compute. reflexivity. Qed.

(** the refutation witness: water + ammonia -> hydroxide + ammonium, [OH2:1].[NH3:2]>>[OH-:1].[NH4+:2] (O = 79):
    no bond changes, the centre is empty, the centre template leaves the substrate as it is *)
Definition wG : hostg := LG [(1%N, NA 79%N false 2 0 []); (2%N, NA 78%N false 3 0 [])] [].
Definition wH : hostg := LG [(1%N, NA 79%N false 1 (-1) []); (2%N, NA 78%N false 4 1 [])] [].
Definition w_regen : bool * bool :=
  match regenerate true false wG wH with
  | Some T => (regen_exact T wG wH, regen_folded T wG wH)
  | None => (true, true)
  end.
Lemma centre_refuted_witness :
  pair_wfb wG wH = true /\ no_explicit_H wG = true /\ consistent_H (its_construct wG wH) = true /\
  centre_carries (its_construct wG wH) = false /\
  (exists T, regenerate true false wG wH = Some T) /\ w_regen = (false, false).
Proof. vm_compute. repeat split; try reflexivity. eexists; reflexivity. Qed.
(** ... while the full ITS of the same reaction regenerates it *)
Example w_full_ok : match regenerate false false wG wH with Some T => regen_exact T wG wH | None => false end = true.
Proof. vm_compute. reflexivity. Qed.

Lemma centre_refuted : exists G H : hostg,
  pair_wfb G H = true /\ no_explicit_H G = true /\ consistent_H (its_construct G H) = true /\
  centre_carries (its_construct G H) = false /\
  exists T : its, regenerate true false G H = Some T /\ regen_exact T G H = false /\ regen_folded T G H = false.
Proof.
  exists wG, wH. destruct centre_refuted_witness as (H1 & H2 & H3 & H4 & (T & ET) & H5).
  repeat split; auto. exists T. split; [exact ET|]. unfold w_regen in H5. rewrite ET in H5. inversion H5. auto.
Qed.

(** non-vacuity of C04_centre_exact: the witness satisfies its hypotheses, backwards too *)
Example w_exact_bwd : match regenerate true true wG wH with Some T => regen_exact T wH wG | None => true end = false.
Proof. vm_compute. reflexivity. Qed.

(** non-vacuity of C04_identity_glue_any_rule, default (explicit-hydrogen) mode: bromoethane + water written with explicit
    centre hydrogens, [CH3:1][C:2]([H:5])([H:6])[Br:3].[O:4]([H:7])[H:8]>>[CH3:1][C:2]([H:5])([H:6])[O:4][H:8].[Br:3][H:7]
    (Br = 17010, O = 79): the rule prepared by _strip_explicit_h describes the pair of implicit-hydrogen sides *)
Definition eG : hostg :=
  LG [(1%N, NA 67%N false 3 0 []); (2%N, NA 67%N false 0 0 []); (5%N, NA 72%N false 0 0 []); (6%N, NA 72%N false 0 0 []);
      (3%N, NA 17010%N false 0 0 []); (4%N, NA 79%N false 0 0 []); (7%N, NA 72%N false 0 0 []); (8%N, NA 72%N false 0 0 [])]
     [(1%N, 2%N, 2); (2%N, 5%N, 2); (2%N, 6%N, 2); (2%N, 3%N, 2); (4%N, 7%N, 2); (4%N, 8%N, 2)].
Definition eH : hostg :=
  LG [(1%N, NA 67%N false 3 0 []); (2%N, NA 67%N false 0 0 []); (5%N, NA 72%N false 0 0 []); (6%N, NA 72%N false 0 0 []);
      (4%N, NA 79%N false 0 0 []); (8%N, NA 72%N false 0 0 []); (3%N, NA 17010%N false 0 0 []); (7%N, NA 72%N false 0 0 [])]
     [(1%N, 2%N, 2); (2%N, 5%N, 2); (2%N, 6%N, 2); (2%N, 4%N, 2); (4%N, 8%N, 2); (3%N, 7%N, 2)].
Definition e_rule : its := match rule_of true false eG eH with Some (rc, _, _) => rc | None => LG [] [] end.
Example e_mode : mode_E eG eH = true /\ consistent_H (its_construct eG eH) = true.
Proof. vm_compute. split; reflexivity. Qed.
Example e_describes :
  pair_wfb (substrate false eG eH) (h_to_implicit_host eH) = true /\
  describesb (substrate false eG eH) (h_to_implicit_host eH) e_rule = true /\ length (gnodes e_rule) = 3%nat.
Proof. vm_compute. repeat split; reflexivity. Qed.
Example e_regen_folded : match regenerate true false eG eH with Some T => regen_folded T eG eH | None => false end = true.
Proof. vm_compute. reflexivity. Qed.

(** non-vacuity of C04_in_results_symmetric / C04_identity_glue_any_rule_symmetric: dehydrogenation of ethane written with
    implicit hydrogens, [CH3:1][CH3:2]>>[CH2:1]=[CH2:2]; the rule is symmetric under the exchange of its two carbons *)
Definition sG : hostg := LG [(1%N, NA 67%N false 3 0 [67%N]); (2%N, NA 67%N false 3 0 [67%N])] [(1%N, 2%N, 2)].
Definition sH : hostg := LG [(1%N, NA 67%N false 2 0 [67%N]); (2%N, NA 67%N false 2 0 [67%N])] [(1%N, 2%N, 4)].
Definition swap12 (n : N) : N := if N.eqb n 1 then 2%N else if N.eqb n 2 then 1%N else n.
Example s_hyps : pair_wfb sG sH = true /\ no_explicit_H sG = true /\ centre_carries (its_construct sG sH) = true.
Proof. vm_compute. repeat split; reflexivity. Qed.
Example s_aut : rule_aut (template true false sG sH) swap12 swap12.
Proof.
  constructor.
  - intros n I. vm_compute in I. destruct I as [<-|[<-|[]]]; vm_compute; auto.
  - intros n a E. destruct (N.eq_dec n 1) as [->|N1]; [|destruct (N.eq_dec n 2) as [->|N2]].
    + vm_compute in E. inversion E; subst. eexists. split; [vm_compute; reflexivity|split; reflexivity].
    + vm_compute in E. inversion E; subst. eexists. split; [vm_compute; reflexivity|split; reflexivity].
    + exfalso. apply label_some_in in E. vm_compute in E. destruct E as [E|[E|[]]]; congruence.
  - intros u v x I. vm_compute in I. destruct I as [I|[]]. inversion I; subst. vm_compute. reflexivity.
  - intros u v x I. vm_compute in I. destruct I as [I|[]]. inversion I; subst. vm_compute. reflexivity.
Qed.
Example s_swapped_match_regenerates :
  aut_map (template true false sG sH) swap12 = [(1%N, 2%N); (2%N, 1%N)] /\
  match glue (substrate false sG sH) (template true false sG sH) [(1%N, 2%N); (2%N, 1%N)] with
  | Some T => regen_exact T sG sH | None => false end = true.
Proof. vm_compute. split; reflexivity. Qed.

(** non-vacuity of C04_identity_glue_default: bromoethane + water with the one migrating hydrogen explicit,
    [CH3:1][CH2:2][Br:3].[OH:4][H:7]>>[CH3:1][CH2:2][OH:4].[Br:3][H:7], satisfies its hypotheses for the centre and
    the full ITS, forwards and backwards *)
Definition dG : hostg :=
  LG [(1%N, NA 67%N false 3 0 []); (2%N, NA 67%N false 2 0 []); (3%N, NA 17010%N false 0 0 []); (4%N, NA 79%N false 1 0 []); (7%N, NA 72%N false 0 0 [])]
     [(1%N, 2%N, 2); (2%N, 3%N, 2); (4%N, 7%N, 2)].
Definition dH : hostg :=
  LG [(1%N, NA 67%N false 3 0 []); (2%N, NA 67%N false 2 0 []); (4%N, NA 79%N false 1 0 []); (3%N, NA 17010%N false 0 0 []); (7%N, NA 72%N false 0 0 [])]
     [(1%N, 2%N, 2); (2%N, 4%N, 2); (3%N, 7%N, 2)].
Example d_default_hyps :
  pair_wfb dG dH = true /\ mode_E dG dH = true /\ centre_carries (its_construct dG dH) = true /\
  default_okb dG dH (template true false dG dH) = true /\ default_okb dG dH (template false false dG dH) = true /\
  default_okb dH dG (template true true dG dH) = true /\ default_okb dH dG (template false true dG dH) = true.
Proof. vm_compute. repeat split; reflexivity. Qed.
(** spectator hydrogens written explicitly (eG / eH above: two on the carbon, one on the oxygen) are covered as well *)
Example e_default_scope : default_okb eG eH (template true false eG eH) = true /\ default_okb eG eH (template false false eG eH) = true /\
  default_okb eH eG (template true true eG eH) = true.
Proof. vm_compute. repeat split; reflexivity. Qed.

(** non-vacuity of C04_identity_among_raw: with C06's verified enumerator as [enum], on CH3I + NH3 (centre, forwards) the
    identity is found among the raw matches of the exhaustive strategy *)
From SK Require Import lib.Mono model.C06_Model lib.C06_Spec model.C04_Reactor proof.C04_Engine.
Definition ex_S : hostg := substrate false exG exH.
Definition ex_P : molg := match rule_of true false exG exH with Some (_, l, _) => pattern_of l | None => LG [] [] end.
Example ex_identity_found :
  existsb (fun m' => forallb (fun ph => existsb (fun qh => N.eqb (fst ph) (fst qh) && N.eqb (snd ph) (snd qh)) m') (id_map (node_ids ex_P))
                     && Nat.eqb (length m') (length (node_ids ex_P)))
          (C06_Model.find (monos_on (tr_host ex_S) (tr_pat ex_P)) (Cfg 0 0 100 true false) (tr_host ex_S) (tr_pat ex_P)) = true
  /\ forallb (fun p => 0 <=? m_hc (snd p)) (gnodes ex_P) = true
  /\ (lenN (monos_on (tr_host ex_S) (tr_pat ex_P) (node_ids (tr_host ex_S)) (node_ids (tr_pat ex_P))) <= 100)%N.
Proof. vm_compute. repeat split; try reflexivity. intros E; discriminate E. Qed.

(** non-vacuity of C04_pruned_results: the symmetric rule of ethane dehydrogenation (sG / sH above), raw = the two matches
    in the order that lists the swapped one first; faithful codes; the pruning keeps the swapped match only, and
    its_list on it regenerates the reaction *)
From SK Require Import model.C11_Model model.C04_Reactor proof.C04_Prune.
Definition s_cn (a : inode) : N := (a_el (iG a) + 100 * Z.to_N (a_hc (iG a)) + 10000 * Z.to_N (a_hc (iH a)))%N.
Definition s_ce (x : iedge) : N := (Z.to_N (C03_Model.eG x) + 100 * Z.to_N (C03_Model.eH x))%N.
Definition s_raw : list C03_Model.mapping := [[(1%N, 2%N); (2%N, 1%N)]; [(1%N, 1%N); (2%N, 2%N)]].
Example s_faithful : faithful s_cn s_ce (template true false sG sH).
Proof.
  split.
  - intros n a n' b I I'. vm_compute in I, I'. destruct I as [I|[I|[]]], I' as [I'|[I'|[]]]; inversion I; inversion I'; subst; intros _; split; reflexivity.
  - intros u v x u' v' z I I'. vm_compute in I, I'. destruct I as [I|[]], I' as [I'|[]]. inversion I; inversion I'; subst. reflexivity.
Qed.
Example s_pruned :
  C11_Model.prune (fun m : C03_Model.mapping => m) (tr_rule s_cn s_ce (template true false sG sH)) s_raw = [[(1%N, 2%N); (2%N, 1%N)]] /\
  existsb (fun f => match f with Some T => regen_exact T sG sH | None => false end)
          (its_list true false sG sH (C11_Model.prune (fun m : C03_Model.mapping => m) (tr_rule s_cn s_ce (template true false sG sH)) s_raw)) = true.
Proof. vm_compute. split; reflexivity. Qed.
