(** C13 -- proofs about model/C13_Trace.v: (1) the traced loops compute exactly what the loops of C13_Model.v compute (so every
    theorem about [gc_fit], [lib_check], [cluster], [fit] speaks about what the correspondence evaluates through [runx]);
    (2) which templates lib_check tests (the tests of iterative_cluster: proof/C13_TraceExact.v); (3) the constructor contract;
    (4) the matchers on raw dictionaries; (5) the option handling of graph_isomorphism. *)
From Coq Require Import List ZArith Bool Lia.
From SK Require Import lib.LGraph model.C13_Model model.C13_Trace proof.C13_Proof.
Import ListNotations.
Local Open Scope nat_scope.

Section Tr.
Variable iso : item -> item -> bool.
Variable mode : attr_mode.

Lemma gc_inner_tr_fst i xi c rest : forall st tr,
  fst (gc_inner_tr iso mode i xi c rest st tr) = gc_inner iso mode xi c rest st.
Proof.
  induction rest as [|[j xj] r IH]; intros [[cl vis] rc] tr; simpl; [reflexivity|].
  destruct (zlist_eqb (gc_key mode xi) (gc_key mode xj) && negb (memb j vis)); [destruct (iso xi xj)|]; apply IH.
Qed.

Lemma gc_outer_tr_fst todo : forall visited clusters r2c tr,
  fst (gc_outer_tr iso mode todo visited clusters r2c tr) = gc_outer iso mode todo visited clusters r2c.
Proof.
  induction todo as [|[i xi] rest IH]; intros visited clusters r2c tr; simpl; [reflexivity|].
  destruct (memb i visited); [apply IH|]. rewrite <- (gc_inner_tr_fst i xi _ rest _ tr).
  destruct (gc_inner_tr _ _ _ _ _ _ _ _) as [[[cl vis] rc] tr']. apply IH.
Qed.

Lemma gc_iterative_tr_fst rules : fst (gc_iterative_tr iso mode rules) = gc_iterative iso mode rules.
Proof. apply gc_outer_tr_fst. Qed.

Lemma gc_fit_tr_fst data : fst (gc_fit_tr iso mode data) = gc_fit iso mode data.
Proof.
  unfold gc_fit_tr, gc_fit. rewrite <- gc_iterative_tr_fst.
  destruct (gc_iterative_tr iso mode data) as [[cl rc] tr]. reflexivity.
Qed.

Lemma find_tr_fst x sub : fst (find_tr iso x sub) = find (fun t => iso (fst t) x) sub.
Proof.
  induction sub as [|t r IH]; simpl; [reflexivity|]. destruct (iso (fst t) x); [reflexivity|].
  destruct (find_tr iso x r). exact IH.
Qed.

Lemma lib_check_tr_fst x ts : fst (lib_check_tr iso mode x ts) = lib_check iso mode x ts.
Proof.
  unfold lib_check_tr, lib_check. rewrite <- find_tr_fst.
  now destruct (find_tr iso x _) as [[t|] tested].
Qed.

Lemma cluster_tr_fst data : forall ts, fst (cluster_tr iso mode data ts) = cluster iso mode data ts.
Proof.
  induction data as [|x r IH]; intros ts; simpl; [reflexivity|].
  rewrite <- lib_check_tr_fst. destruct (lib_check_tr iso mode x ts) as [[c ts1] tested]. simpl.
  rewrite <- IH. now destruct (cluster_tr iso mode r ts1) as [[cs ts2] tr].
Qed.

Lemma cluster_batches_tr_fst batches : forall ts,
  fst (cluster_batches_tr iso mode batches ts) = cluster_batches iso mode batches ts.
Proof.
  induction batches as [|b r IH]; intros ts; simpl; [reflexivity|].
  rewrite <- cluster_tr_fst. destruct (cluster_tr iso mode b ts) as [[cs ts1] tr]. simpl.
  rewrite <- IH. now destruct (cluster_batches_tr iso mode r ts1) as [[cs' ts2] tr'].
Qed.

Theorem fit_tr_fst data ts bs picks : fst (fit_tr iso mode data ts bs picks) = fit iso mode data ts bs picks.
Proof.
  unfold fit_tr, fit. destruct (match bs with Some b => chunks b data | None => [data] end) as [|batch [|b2 rest]].
  - reflexivity.
  - destruct ts as [|t ts'].
    + rewrite <- gc_fit_tr_fst. now destruct (gc_fit_tr iso mode batch) as [cls tr].
    + apply cluster_tr_fst.
  - apply cluster_batches_tr_fst.
Qed.

(** the tested templates are the templates with the entry's attribute key, in library order, up to and including the first
    isomorphic one (all of them when none is isomorphic) *)
Lemma find_tr_spec x sub :
  match find_tr iso x sub with
  | (Some t, tested) =>
      exists pre post, sub = pre ++ t :: post /\ tested = pre ++ [t] /\ iso (fst t) x = true /\
                       forall u, In u pre -> iso (fst u) x = false
  | (None, tested) => tested = sub /\ forall u, In u sub -> iso (fst u) x = false
  end.
Proof.
  induction sub as [|t r IH]; simpl.
  - split; [reflexivity|intros u []].
  - destruct (iso (fst t) x) eqn:E.
    + exists [], r. repeat split; auto. intros u [].
    + destruct (find_tr iso x r) as [[t'|] tested].
      * destruct IH as (pre & post & -> & -> & Ht & Hpre). exists (t :: pre), post. repeat split; auto.
        intros u [<-|Hu]; [exact E|now apply Hpre].
      * destruct IH as (-> & Hall). split; [reflexivity|]. intros u [<-|Hu]; [exact E|now apply Hall].
Qed.

Theorem lib_check_trace x ts :
  let sub := filter (fun t => zlist_eqb (bc_key mode (fst t)) (bc_key mode x)) ts in
  let tested := snd (lib_check_tr iso mode x ts) in
  (forall u, In u tested -> In u ts /\ bc_key mode (fst u) = bc_key mode x) /\
  ((exists pre t post, sub = pre ++ t :: post /\ tested = pre ++ [t] /\ iso (fst t) x = true /\
                       (forall u, In u pre -> iso (fst u) x = false) /\
                       lib_check iso mode x ts = (snd t, ts)) \/
   (tested = sub /\ (forall u, In u sub -> iso (fst u) x = false) /\ snd (lib_check iso mode x ts) = ts ++ [(x, fst (lib_check iso mode x ts))])).
Proof.
  intros sub tested. rewrite <- (lib_check_tr_fst x ts). unfold tested, lib_check_tr. fold sub.
  pose proof (find_tr_spec x sub) as S.
  assert (Hsub : forall u, In u sub -> In u ts /\ bc_key mode (fst u) = bc_key mode x).
  { intros u Hu. apply filter_In in Hu. destruct Hu as (I & K). split; [exact I|now apply zlist_eqb_eq]. }
  destruct (find_tr iso x sub) as [[t|] tst]; simpl.
  - destruct S as (pre & post & Es & -> & Ht & Hpre). split.
    + intros u Hu. apply Hsub. rewrite Es. apply in_app_or in Hu. apply in_or_app.
      destruct Hu as [Hu|[<-|[]]]; [now left|right; now left].
    + left. exists pre, t, post. repeat split; auto.
  - destruct S as (-> & Hall). split; [exact Hsub|]. right. repeat split; auto.
Qed.

End Tr.

(** the old two-slot entry point is the instance [star; zero] of the traced one: same library after every call *)
Theorem stepx_state star zero mo pool ts o :
  snd (stepx [star; zero] mo pool ts (OBase o)) = snd (step star zero mo pool ts o).
Proof.
  destruct o as [idxs labelled|idxs|l| |i|idxs|idxs bs picks]; simpl; try reflexivity.
  - rewrite <- gc_iterative_tr_fst. now destruct (gc_iterative_tr _ _ _) as [[? ?] ?].
  - now destruct (gc_fit_tr _ _ _).
  - rewrite <- lib_check_tr_fst. now destruct (lib_check_tr _ _ _ _) as [[? ?] ?].
  - rewrite <- cluster_tr_fst. now destruct (cluster_tr _ _ _ _) as [[? ?] ?].
  - rewrite <- fit_tr_fst. now destruct (fit_tr _ _ _ _ _ _) as [[? ?] ?].
Qed.

Theorem ctor_contract_spec gc inst nn nd b :
  (ctor_contract gc inst nn nd b = CtorOk <-> available gc inst b = true /\ nn = nd) /\
  (ctor_contract gc inst nn nd b = CtorImportError <->
     available gc inst b = false /\ ((gc = true /\ b = BMod) \/ (gc = false /\ b = BRule))) /\
  (available gc false b = true <-> b = BNx).
Proof.
  unfold ctor_contract. split; [|split].
  - (* accepted: both tests pass *)
    destruct (available gc inst b); cbn [negb].
    + destruct (Nat.eqb_spec nn nd); cbn [negb]; split; [auto|reflexivity|discriminate|now intros [_ ?]].
    + split; [destruct gc, b; discriminate|now intros [? _]].
  - (* ImportError: the first test fails on the class's own optional backend *)
    destruct (available gc inst b); cbn [negb].
    + split; [destruct (negb (nn =? nd)); discriminate|now intros [? _]].
    + destruct gc, b; (split; [intros H; try discriminate H; auto|intros [_ [[? ?]|[? ?]]]; try discriminate; reflexivity]).
  - destruct gc, b; cbn; split; try discriminate; reflexivity.
Qed.

Lemma node_match_raw13_project names : forall defs h p, length defs = length names ->
  node_match_raw13 names defs h p =
  attrs_match defs (map (fun k => LGraph.assoc k h) names) (map (fun k => LGraph.assoc k p) names).
Proof.
  induction names as [|k ks IH]; intros [|d ds] h p E; simpl in *; try discriminate; [reflexivity|].
  rewrite IH by lia. reflexivity.
Qed.

Lemma edge_match_raw13_project k h p :
  edge_match_raw13 k h p = edge_match true (LGraph.assoc k h) (LGraph.assoc k p).
Proof. reflexivity. Qed.

Lemma project13_ids c g : node_ids (project13 c g) = node_ids g.
Proof. unfold node_ids, project13. simpl. rewrite map_map. apply map_ext. reflexivity. Qed.

Lemma project13_label c g u :
  label (project13 c g) u = option_map (fun a => map (fun k => LGraph.assoc k a) (cc_names c)) (label g u).
Proof.
  unfold label, project13. simpl. induction (gnodes g) as [|[k a] r IH]; simpl; [reflexivity|].
  destruct (N.eqb u k); [reflexivity|exact IH].
Qed.

Lemma project13_adj c g u v :
  LGraph.adj (project13 c g) u v = option_map (LGraph.assoc (cc_edge c)) (LGraph.adj g u v).
Proof.
  unfold LGraph.adj, project13. simpl. induction (gedges g) as [|[[a b] x] r IH]; simpl; [reflexivity|].
  destruct ((N.eqb a u && N.eqb b v) || (N.eqb a v && N.eqb b u)); [reflexivity|exact IH].
Qed.

(** on projected graphs the label test of graph_iso is the raw generic_node_match, the bond test the raw generic_edge_match *)
Theorem project13_matchers c (g1 g2 : rgraph13) u v u' v' : length (cc_defs c) = length (cc_names c) ->
  node_match true (cc_defs c) (label (project13 c g1) u) (label (project13 c g2) v) =
    match label g1 u, label g2 v with
    | Some a, Some b => node_match_raw13 (cc_names c) (cc_defs c) a b
    | _, _ => false
    end /\
  match LGraph.adj (project13 c g1) u u', LGraph.adj (project13 c g2) v v' with
  | Some a, Some b => edge_match true a b
  | _, _ => false
  end =
  match LGraph.adj g1 u u', LGraph.adj g2 v v' with
  | Some a, Some b => edge_match_raw13 (cc_edge c) a b
  | _, _ => false
  end.
Proof.
  intros EL. rewrite !project13_label, !project13_adj. split.
  - destruct (label g1 u), (label g2 v); simpl; try reflexivity. now rewrite node_match_raw13_project.
  - destruct (LGraph.adj g1 u u'), (LGraph.adj g2 v v'); reflexivity.
Qed.

Module Example_trace.
Local Open Scope nat_scope.
(** items: ids 0..3; graphs: single atoms C, C, O, C (element codes 1, 1, 2, 1); attribute lists: [7], [7], [7], [8] *)
Definition atom (e : N) : graph := LG [(1%N, [Some e; None])] [].
Definition pool : list item :=
  [MkItem 0 [7%Z] (atom 1); MkItem 1 [7%Z] (atom 1); MkItem 2 [7%Z] (atom 2); MkItem 3 [8%Z] (atom 1)].
Definition isoE := item_iso true [0%N; 0%N].
(** one-shot: 0 is tested against 1 (joined) and 2 (not), never against 3 (other key); then 2 has nobody left *)
Example gc_trace_example : gc_iterative_tr isoE AStr pool = ([[0; 1]; [2]; [3]], [(0, 0); (1, 0); (2, 1); (3, 2)], [(0, 1); (0, 2)]).
Proof. vm_compute. reflexivity. Qed.
(** incremental: item 1 against the library [2:5; 0:9; 3:4] is tested against 2 (no) and 0 (yes) and not against 3 *)
Example lib_trace_example :
  lib_check_tr isoE AStr (nth 1 pool dummy) [(nth 2 pool dummy, 5%Z); (nth 0 pool dummy, 9%Z); (nth 3 pool dummy, 4%Z)] =
  (9%Z, [(nth 2 pool dummy, 5%Z); (nth 0 pool dummy, 9%Z); (nth 3 pool dummy, 4%Z)], [(nth 2 pool dummy, 5%Z); (nth 0 pool dummy, 9%Z)]).
Proof. vm_compute. reflexivity. Qed.
Example ctor_examples :
  ctor_contract true false 2 2 BNx = CtorOk /\ ctor_contract true false 2 1 BNx = CtorValueError /\
  ctor_contract true false 2 1 BMod = CtorImportError /\ ctor_contract false false 2 2 BMod = CtorValueError /\
  ctor_contract false false 1 1 BRule = CtorImportError /\ ctor_contract true false 1 1 BOther = CtorValueError.
Proof. repeat split. Qed.
(** three labels (element, charge, hcount): the third label separates two otherwise equal atoms *)
Definition a3 (h : N) : graph := LG [(1%N, [Some 1%N; None; Some h])] [].
Example three_labels :
  item_iso true [0; 0; 0]%N (MkItem 0 [] (a3 1)) (MkItem 1 [] (a3 2)) = false /\
  item_iso true [0; 0]%N (MkItem 0 [] (a3 1)) (MkItem 1 [] (a3 2)) = true.
Proof. split; vm_compute; reflexivity. Qed.
(** raw dictionaries: keys 0 element, 1 charge, 2 hcount; edge key 0 order *)
Definition rg : rgraph13 := LG [(1%N, [(2%N, 5%N); (0%N, 1%N)]); (2%N, [(0%N, 2%N)])] [(1%N, 2%N, [(0%N, [4%Z])])].
Example project_example :
  project13 {| cc_names := [0; 1]%N; cc_defs := [0; 0]%N; cc_edge := 0%N |} rg =
  LG [(1%N, [Some 1%N; None]); (2%N, [Some 2%N; None])] [(1%N, 2%N, Some [4%Z])].
Proof. reflexivity. Qed.
End Example_trace.

Lemma graph_iso2_diag b defs g1 g2 : graph_iso2 b b defs g1 g2 = graph_iso b defs g1 g2.
Proof. reflexivity. Qed.

(** both matchers given: the caller's configuration decides, use_defaults is irrelevant; no matcher and use_defaults: the
    function's defaults; no matcher, no defaults: topology only *)
Theorem iso_call_cases c cdef g1 g2 :
  (forall ud, iso_call c cdef true true ud g1 g2 = graph_iso true (cc_defs c) (project13 c g1) (project13 c g2)) /\
  iso_call c cdef false false true g1 g2 = graph_iso true (cc_defs cdef) (project13 cdef g1) (project13 cdef g2) /\
  iso_call c cdef false false false g1 g2 =
    graph_iso false [] (project13 {| cc_names := []; cc_defs := []; cc_edge := 0%N |} g1)
                       (project13 {| cc_names := []; cc_defs := []; cc_edge := 0%N |} g2) /\
  iso_call c cdef true false true g1 g2 =
    graph_iso true (cc_defs c) (project13 {| cc_names := cc_names c; cc_defs := cc_defs c; cc_edge := cc_edge cdef |} g1)
                               (project13 {| cc_names := cc_names c; cc_defs := cc_defs c; cc_edge := cc_edge cdef |} g2).
Proof.
  split; [intros ud; destruct c; reflexivity|]. split; [destruct cdef; reflexivity|]. split; reflexivity.
Qed.

Module Example_iso_call.
(** C(charge +1) against C(no charge): different for the caller's [element; charge] matcher, equal without node matcher *)
Definition cE : ccfg := {| cc_names := [0; 1]%N; cc_defs := [0; 9]%N; cc_edge := 0%N |}.
Definition gP : rgraph13 := LG [(1%N, [(0%N, 1%N); (1%N, 5%N)])] [].
Definition gQ : rgraph13 := LG [(2%N, [(0%N, 1%N)])] [].
Example iso_call_example :
  iso_call cE cE true true false gP gQ = false /\ iso_call cE cE false true false gP gQ = true /\
  iso_call cE cE false false true gP gQ = false.
Proof. repeat apply conj; vm_compute; reflexivity. Qed.
End Example_iso_call.
