(** C18 — the two views of every network are well-formed graphs in the attribute domain of the theorems. *)
From Coq Require Import List NArith ZArith Bool Arith Lia Permutation.
From SK Require Import lib.IRCore model.C18_Model proof.C18_Spec proof.C18_Graph proof.C18_Label.
Import ListNotations.

Definition GI (g : vgraph) : Prop := wf g /\ kinds_ok g /\ arcs_ok g.
Definition kind_dom (k : Z) : Prop := k = KREACTION \/ k = KSPECIES.

Lemma set_node_upsert v k : upsert _ _ fst v (set_node v k).
Proof. split; [reflexivity|]. intros [u k'] r. simpl. destruct (N.eqb_spec u v) as [->|Hne]; auto. Qed.
Lemma ensure_node_upsert v k : upsert _ _ fst v (ensure_node v k).
Proof. split; [reflexivity|]. intros [u k'] r. simpl. destruct (N.eqb_spec u v) as [->|Hne]; auto. Qed.
Lemma set_arc_upsert u v a : upsert _ _ akey (u, v) (set_arc u v a).
Proof.
  split; [reflexivity|]. intros e r. simpl. destruct (N.eqb (asrc e) u && N.eqb (adst e) v) eqn:E; [left|right].
  - apply akey_eqb in E. rewrite E. auto.
  - split; [reflexivity|]. intros E'. apply akey_eqb in E'. congruence.
Qed.
Lemma ensure_arc_upsert u v a : upsert _ _ akey (u, v) (ensure_arc u v a).
Proof.
  split; [reflexivity|]. intros e r. simpl. destruct (N.eqb (asrc e) u && N.eqb (adst e) v) eqn:E; [left|right].
  - apply akey_eqb in E. auto.
  - split; [reflexivity|]. intros E'. apply akey_eqb in E'. congruence.
Qed.

Lemma set_node_in v k l x : In x (map fst (set_node v k l)) <-> x = v \/ In x (map fst l).
Proof. exact (upsert_keys_in _ _ _ _ _ (set_node_upsert _ _) l x). Qed.
Lemma set_node_nodup v k l : NoDup (map fst l) -> NoDup (map fst (set_node v k l)).
Proof. exact (upsert_keys_nodup _ _ _ _ _ (set_node_upsert _ _) l). Qed.
Lemma ensure_node_in v k l x : In x (map fst (ensure_node v k l)) <-> x = v \/ In x (map fst l).
Proof. exact (upsert_keys_in _ _ _ _ _ (ensure_node_upsert _ _) l x). Qed.
Lemma ensure_node_nodup v k l : NoDup (map fst l) -> NoDup (map fst (ensure_node v k l)).
Proof. exact (upsert_keys_nodup _ _ _ _ _ (ensure_node_upsert _ _) l). Qed.
Lemma set_arc_in u v a l x : In x (map akey (set_arc u v a l)) <-> x = (u, v) \/ In x (map akey l).
Proof. exact (upsert_keys_in _ _ _ _ _ (set_arc_upsert _ _ _) l x). Qed.
Lemma set_arc_nodup u v a l : NoDup (map akey l) -> NoDup (map akey (set_arc u v a l)).
Proof. exact (upsert_keys_nodup _ _ _ _ _ (set_arc_upsert _ _ _) l). Qed.
Lemma ensure_arc_in u v a l x : In x (map akey (ensure_arc u v a l)) <-> x = (u, v) \/ In x (map akey l).
Proof. exact (upsert_keys_in _ _ _ _ _ (ensure_arc_upsert _ _ _) l x). Qed.
Lemma ensure_arc_nodup u v a l : NoDup (map akey l) -> NoDup (map akey (ensure_arc u v a l)).
Proof. exact (upsert_keys_nodup _ _ _ _ _ (ensure_arc_upsert _ _ _) l). Qed.

Lemma set_node_mem v k l p : In p (set_node v k l) -> In p l \/ p = (v, k).
Proof.
  induction l as [|[u k'] l IH]; simpl; [intros [<-|[]]; auto|].
  destruct (N.eqb_spec u v) as [->|Hne]; simpl; intros [E|I]; auto. destruct (IH I); auto.
Qed.
Lemma ensure_node_mem v k l p : In p (ensure_node v k l) -> In p l \/ p = (v, k).
Proof.
  induction l as [|[u k'] l IH]; simpl; [intros [<-|[]]; auto|].
  destruct (N.eqb_spec u v) as [->|Hne]; simpl; intros [E|I]; auto. destruct (IH I); auto.
Qed.
Lemma set_arc_mem u v a l e : In e (set_arc u v a l) -> In e l \/ e = (u, v, a).
Proof.
  induction l as [|e' l IH]; simpl; [intros [<-|[]]; auto|].
  destruct (N.eqb (asrc e') u && N.eqb (adst e') v); simpl; intros [E|I]; auto. destruct (IH I); auto.
Qed.
Lemma ensure_arc_mem u v a l e : In e (ensure_arc u v a l) -> In e l \/ e = (u, v, a).
Proof.
  induction l as [|e' l IH]; simpl; [intros [<-|[]]; auto|].
  destruct (N.eqb (asrc e') u && N.eqb (adst e') v); simpl; intros [E|I]; auto. destruct (IH I); auto.
Qed.

(* ---------------- graph-level steps ---------------- *)
Lemma GI_nodes g l' : GI g -> NoDup (map fst l') -> (forall x, In x (node_ids g) -> In x (map fst l')) ->
  (forall p, In p l' -> In p (vnodes g) \/ kind_dom (snd p)) -> GI (VG l' (varcs g)).
Proof.
  intros ((Hn & Ha & He) & Hk & Hka) Hnd Hin Hmem.
  assert (W : wf (VG l' (varcs g))).
  { split; [exact Hnd|]. split; [exact Ha|]. intros e I. destruct (He e I). split; apply Hin; auto. }
  split; [exact W|]. split; [|exact Hka].
  intros p I. destruct (Hmem p I) as [I'|D]; auto.
Qed.
Lemma GI_arcs g l' : GI g -> NoDup (map akey l') ->
  (forall e, In e l' -> In e (varcs g) \/ (In (asrc e) (node_ids g) /\ In (adst e) (node_ids g) /\ attr_ok (aattr e))) ->
  GI (VG (vnodes g) l').
Proof.
  intros ((Hn & Ha & He) & Hk & Hka) Hnd Hmem.
  assert (W : wf (VG (vnodes g) l')).
  { split; [exact Hn|]. split; [exact Hnd|]. intros e I. destruct (Hmem e I) as [I'|(H1 & H2 & _)]; [apply He; auto|split; auto]. }
  split; [exact W|]. split; [exact Hk|].
  intros e I. destruct (Hmem e I) as [I'|(_ & _ & H3)]; auto.
Qed.

Lemma GI_ensure_node g v k : kind_dom k -> GI g -> GI (VG (ensure_node v k (vnodes g)) (varcs g)).
Proof.
  intros Hk Hg. apply (GI_nodes g _ Hg).
  - apply ensure_node_nodup, Hg.
  - intros y Hy. apply ensure_node_in. auto.
  - intros p Hp. destruct (ensure_node_mem _ _ _ _ Hp) as [I| ->]; auto.
Qed.
Lemma GI_set_node g v k : kind_dom k -> GI g -> GI (VG (set_node v k (vnodes g)) (varcs g)).
Proof.
  intros Hk Hg. apply (GI_nodes g _ Hg).
  - apply set_node_nodup, Hg.
  - intros y Hy. apply set_node_in. auto.
  - intros p Hp. destruct (set_node_mem _ _ _ _ Hp) as [I| ->]; auto.
Qed.

Lemma fold_left_inv {A B} (P : A -> Prop) (f : A -> B -> A) l : (forall a x, In x l -> P a -> P (f a x)) ->
  forall a, P a -> P (fold_left f l a).
Proof. induction l as [|x l IH]; simpl; intros H a Ha; [exact Ha|]. apply IH; auto. Qed.

Definition coeffs_ok (n : net) : Prop := forall r, In r (nrxns n) -> forall sc, In sc (lhs r ++ rhs r) -> (0 < snd sc)%Z.
Definition net_closed (n : net) : Prop := forall r, In r (nrxns n) -> forall sc, In sc (lhs r ++ rhs r) -> In (fst sc) (nspecies n).

Lemma species_nodes_GI l : GI (VG (fold_left (fun l s => ensure_node s KSPECIES l) l []) []) /\
  forall s, In s l -> In s (map fst (fold_left (fun l s => ensure_node s KSPECIES l) l [])).
Proof.
  assert (G : forall l acc, GI (VG acc []) -> GI (VG (fold_left (fun l s => ensure_node s KSPECIES l) l acc) []) /\
            forall s, In s l \/ In s (map fst acc) -> In s (map fst (fold_left (fun l s => ensure_node s KSPECIES l) l acc))).
  { clear l. induction l as [|x l IH]; simpl; intros acc H; [split; auto; intros s [[]|I]; auto|].
    destruct (IH _ (GI_ensure_node (VG acc []) x KSPECIES (or_intror eq_refl) H)) as [H1 H2]. split; auto. intros s Hs. apply H2.
    rewrite ensure_node_in. destruct Hs as [[->|I]|I]; auto. }
  assert (H0 : GI (VG [] [])).
  { split; [split; [constructor|split; [constructor|intros e []]]|split; intros p []]. }
  destruct (G l [] H0) as [H1 H2]. split; auto.
Qed.

Lemma stv_ok st c : (0 < c)%Z -> (-1 <= stv st c)%Z.
Proof. unfold stv, NONE. destruct st; lia. Qed.

Theorem view_bip_GI st n : coeffs_ok n -> GI (view_bip st n).
Proof.
  intros Hc. unfold view_bip.
  apply (fold_left_inv GI).
  2: apply species_nodes_GI.
  intros g r Hr Hg. unfold bip_add_rxn.
  set (g1 := VG (set_node (rid r) KREACTION (vnodes g)) (varcs g)).
  assert (H1 : GI g1 /\ In (rid r) (node_ids g1)).
  { split; [apply GI_set_node; [left; reflexivity|exact Hg]|apply set_node_in; auto]. }
  assert (Side : forall (role : Z) side, (role = RREACTANT \/ role = RPRODUCT) ->
            (forall sc, In sc side -> (0 < snd sc)%Z) -> forall g0, GI g0 /\ In (rid r) (node_ids g0) ->
            forall (flip : bool),
            let P := fun g0 => GI g0 /\ In (rid r) (node_ids g0) in
            P (fold_left (fun g sc => VG (ensure_node (fst sc) KSPECIES (vnodes g))
                                        (if flip then set_arc (rid r) (fst sc) (role, stv st (snd sc)) (varcs g)
                                         else set_arc (fst sc) (rid r) (role, stv st (snd sc)) (varcs g))) side g0)).
  { intros role side Hrole Hpos g0 H0 flip P. apply (fold_left_inv P); auto.
    intros ga sc Hsc [Hga Hrid]. unfold P.
    set (gb := VG (ensure_node (fst sc) KSPECIES (vnodes ga)) (varcs ga)).
    assert (Hb : GI gb /\ In (rid r) (node_ids gb) /\ In (fst sc) (node_ids gb)).
    { split; [apply GI_ensure_node; [right; reflexivity|exact Hga]|split; apply ensure_node_in; auto]. }
    destruct Hb as (Hgb & Hr1 & Hs1).
    assert (Hat : attr_ok (role, stv st (snd sc))).
    { split; simpl; [destruct Hrole as [-> | ->]; unfold RREACTANT, RPRODUCT; auto|apply stv_ok; auto]. }
    split; [|exact Hr1].
    destruct flip; (apply (GI_arcs gb _ Hgb); [apply set_arc_nodup; apply Hgb|]);
      intros e He; destruct (set_arc_mem _ _ _ _ _ He) as [I| ->]; auto. }
  assert (Hl : forall sc, In sc (lhs r) -> (0 < snd sc)%Z) by (intros sc I; apply (Hc r Hr); apply in_or_app; auto).
  assert (Hrr : forall sc, In sc (rhs r) -> (0 < snd sc)%Z) by (intros sc I; apply (Hc r Hr); apply in_or_app; auto).
  pose proof (Side RREACTANT (lhs r) (or_introl eq_refl) Hl g1 H1 false) as H2. cbv beta zeta in H2.
  pose proof (Side RPRODUCT (rhs r) (or_intror eq_refl) Hrr _ H2 true) as H3. cbv beta zeta in H3.
  exact (proj1 H3).
Qed.

Theorem view_sp_GI n : net_closed n -> GI (view_sp n).
Proof.
  intros Hc. unfold view_sp.
  destruct (species_nodes_GI (nspecies n)) as [H0 Hin].
  set (g0 := VG (fold_left (fun l s => ensure_node s KSPECIES l) (nspecies n) []) []) in *.
  set (P := fun g => GI g /\ forall s, In s (nspecies n) -> In s (node_ids g)).
  assert (HP : P (fold_left sp_add_rxn (nrxns n) g0)).
  { apply (fold_left_inv P); [|split; auto].
    intros g r Hr Hg. unfold sp_add_rxn.
    apply (fold_left_inv P); auto. intros ga rc Hrc Hga.
    apply (fold_left_inv P); auto. intros gb pc Hpc [Hgb Hsb].
    split; [|exact Hsb].
    apply (GI_arcs gb _ Hgb); [apply ensure_arc_nodup; apply Hgb|].
    intros e He. destruct (ensure_arc_mem _ _ _ _ _ He) as [I| ->]; auto. right.
    unfold asrc, adst, aattr; simpl. split; [|split].
    - apply Hsb. apply (Hc r Hr). apply in_or_app. auto.
    - apply Hsb. apply (Hc r Hr). apply in_or_app. auto.
    - split; simpl; unfold NONE; auto. lia. }
  exact (proj1 HP).
Qed.

Theorem view_GI bip st n : coeffs_ok n -> net_closed n -> GI (view bip st n).
Proof. intros H1 H2. destruct bip; simpl; [apply view_bip_GI|apply view_sp_GI]; auto. Qed.
