(** C13 -- proofs about the clustering model (model/C13_Model.v).

    Part 1: the structure-following models refine the generic first-representative specification of
            lib/C13_Partition.v:
              lib_check  = classify,  cluster = classify_list,  cluster_batches = classify_list on the
              concatenation,  concat (chunks b l) = l,
              gc_fit (visited set, attribute pre-filter, inner/outer loops) = map (class_of R data) data.
    Part 2: the theorems of props/C13.v. *)
From Coq Require Import List ZArith Bool Lia Permutation.
From SK Require Import lib.LGraph lib.C13_Partition model.C13_Model.
Import ListNotations.

Lemma memb_spec i l : memb i l = true <-> In i l.
Proof.
  unfold memb. rewrite existsb_exists. split.
  - intros (y & Hy & E). apply Nat.eqb_eq in E. now subst.
  - intros H. exists i. split; [exact H|apply Nat.eqb_refl].
Qed.

Lemma memb_cons_ne i j l : i <> j -> memb i (j :: l) = memb i l.
Proof. intros H. unfold memb. simpl. apply Nat.eqb_neq in H. now rewrite H. Qed.

Lemma memb_cons_eq i l : memb i (i :: l) = true.
Proof. unfold memb. simpl. now rewrite Nat.eqb_refl. Qed.

Lemma memb_app i a b : memb i (a ++ b) = memb i a || memb i b.
Proof. apply existsb_app. Qed.

Lemma memb_rev i l : memb i (rev l) = memb i l.
Proof. apply eq_true_iff_eq. rewrite !memb_spec. symmetry. apply in_rev. Qed.

Lemma zlist_eqb_eq a b : zlist_eqb a b = true <-> a = b.
Proof.
  revert b. induction a as [|x a IH]; intros [|y b]; simpl; split; try discriminate; try reflexivity.
  - intros H. apply andb_prop in H. destruct H as [H1 H2]. apply Z.eqb_eq in H1. apply IH in H2. congruence.
  - intros E. inversion E; subst. rewrite Z.eqb_refl. simpl. now apply IH.
Qed.

Lemma zlist_eqb_refl a : zlist_eqb a a = true.
Proof. now apply zlist_eqb_eq. Qed.

Lemma bc_key_gc_key mode x : bc_key mode x = gc_key mode x.
Proof. destruct mode; reflexivity. Qed.

Lemma assoc_nat_app {V} k (a b : list (nat * V)) :
  assoc_nat k (a ++ b) = match assoc_nat k a with Some v => Some v | None => assoc_nat k b end.
Proof.
  induction a as [|[k' v] r IH]; simpl; [reflexivity|]. destruct (Nat.eqb k k'); [reflexivity|exact IH].
Qed.

Lemma assoc_nat_in {V} k (v : V) (a : list (nat * V)) : assoc_nat k a = Some v -> In (k, v) a.
Proof.
  induction a as [|[k' v'] r IH]; simpl; [discriminate|].
  destruct (Nat.eqb_spec k k') as [->|Hne]; [intros [= ->]; now left|right; auto].
Qed.

Lemma assoc_nat_notin {V} k (a : list (nat * V)) : ~ In k (map fst a) -> assoc_nat k a = None.
Proof.
  induction a as [|[k' v] r IH]; simpl; intros H; [reflexivity|].
  destruct (Nat.eqb_spec k k') as [->|Hne]; [exfalso; apply H; now left|]. apply IH. intros I. apply H. now right.
Qed.

Lemma assoc_nat_const {V} k (c : V) (l : list nat) : assoc_nat k (map (fun j => (j, c)) l) = if memb k l then Some c else None.
Proof.
  induction l as [|j r IH]; simpl; [reflexivity|]. unfold memb. simpl. destruct (Nat.eqb k j); [reflexivity|exact IH].
Qed.

Lemma NoDup_map_fst_eq {A B} (l : list (A * B)) k v v' : NoDup (map fst l) -> In (k, v) l -> In (k, v') l -> v = v'.
Proof.
  induction l as [|[k0 v0] r IH]; simpl; intros Hnd I I'; [destruct I|]. inversion Hnd as [|? ? Hk Hr]; subst.
  assert (Hin : forall w, In (k, w) r -> In k (map fst r)) by (intros w H; now apply (in_map fst) in H).
  destruct I as [E|I], I' as [E'|I']; [congruence| | |now apply IH].
  - injection E as -> ->. elim Hk. eauto.
  - injection E' as -> ->. elim Hk. eauto.
Qed.

Lemma NoDup_app_intro {X} (a b : list X) : NoDup a -> NoDup b -> (forall x, In x a -> In x b -> False) -> NoDup (a ++ b).
Proof.
  induction a as [|x r IH]; intros Ha Hb Hd; simpl; [exact Hb|]. inversion Ha; subst. constructor.
  - intros Hin. apply in_app_or in Hin. destruct Hin as [Hin|Hin]; [contradiction|]. apply (Hd x); [now left|exact Hin].
  - apply IH; auto. intros y Hy. apply Hd. now right.
Qed.

Lemma enum_from_fst {X} s (l : list X) : map fst (enum_from s l) = seq s (length l).
Proof. revert s. induction l as [|x r IH]; intros s; simpl; [reflexivity|]. now rewrite IH. Qed.

Lemma enum_from_snd {X} s (l : list X) : map snd (enum_from s l) = l.
Proof. revert s. induction l as [|x r IH]; intros s; simpl; [reflexivity|]. now rewrite IH. Qed.

Lemma enum_from_in {X} (l : list X) : forall s j x, In (j, x) (enum_from s l) <-> s <= j /\ nth_error l (j - s) = Some x.
Proof.
  induction l as [|y r IH]; intros s j x; simpl.
  - split; [intros []|]. intros (_ & H). destruct (j - s); discriminate.
  - rewrite IH. split.
    + intros [[= <- <-]|(H1 & H2)]; [now rewrite Nat.sub_diag|]. replace (j - s) with (S (j - S s)) by lia. now split; [lia|].
    + intros (H1 & H2). destruct (Nat.eq_dec s j) as [->|Hne]; [rewrite Nat.sub_diag in H2; injection H2 as ->; now left|].
      right. replace (j - s) with (S (j - S s)) in H2 by lia. now split; [lia|].
Qed.

Lemma find_filter {A} (p q : A -> bool) l : find p (filter q l) = find (fun t => q t && p t) l.
Proof.
  induction l as [|a r IH]; simpl; [reflexivity|].
  destruct (q a); simpl; [destruct (p a); [reflexivity|exact IH]|exact IH].
Qed.

Lemma find_ext_in {A} (p q : A -> bool) l : (forall a, In a l -> p a = q a) -> find p l = find q l.
Proof.
  induction l as [|a r IH]; intros H; simpl; [reflexivity|].
  rewrite (H a) by now left. rewrite IH by (intros b Hb; apply H; now right). reflexivity.
Qed.

Lemma class_z_inj a b : class_z a = class_z b -> a = b.
Proof. destruct a, b; simpl; intros H; try lia; [f_equal; lia|reflexivity]. Qed.

Lemma nth_error_map_inj {A B} (f : A -> B) (l : list A) i j :
  (forall a b, f a = f b -> a = b) ->
  (nth_error (map f l) i = nth_error (map f l) j <-> nth_error l i = nth_error l j).
Proof.
  intros Hinj. rewrite !nth_error_map. split; [|intros ->; reflexivity].
  destruct (nth_error l i), (nth_error l j); simpl; intros E; inversion E; [f_equal; auto|reflexivity].
Qed.

Section Refine.
Variable iso : item -> item -> bool.
Variable mode : attr_mode.

(** the relation the code actually evaluates: attribute pre-filter, then the isomorphism test *)
Definition Rc (rep x : item) : bool := zlist_eqb (gc_key mode rep) (gc_key mode x) && iso rep x.

Lemma Rc_refl x : iso x x = true -> Rc x x = true.
Proof. intros H. unfold Rc. now rewrite zlist_eqb_refl. Qed.

Lemma lib_check_classify x ts : lib_check iso mode x ts = classify Rc ts x.
Proof.
  unfold lib_check, classify, max_class. rewrite find_filter.
  rewrite (find_ext_in _ (fun t => Rc (fst t) x)); [reflexivity|].
  intros t _. unfold Rc. now rewrite !bc_key_gc_key.
Qed.

Lemma cluster_classify_list data ts : cluster iso mode data ts = classify_list Rc ts data.
Proof.
  revert ts. induction data as [|x r IH]; intros ts; simpl; [reflexivity|].
  rewrite lib_check_classify. destruct (classify Rc ts x) as [c ts1]. rewrite IH. reflexivity.
Qed.

Lemma cluster_batches_concat batches ts :
  cluster_batches iso mode batches ts = classify_list Rc ts (concat batches).
Proof.
  revert ts. induction batches as [|b r IH]; intros ts; simpl; [reflexivity|].
  rewrite cluster_classify_list, classify_list_app.
  destruct (classify_list Rc ts b) as [cs ts1]. rewrite IH. reflexivity.
Qed.

Lemma chunks_fuel_spec {X} fuel b (l : list X) : 1 <= b -> length l <= fuel ->
  concat (chunks_fuel fuel b l) = l /\ Forall (fun c => 1 <= length c <= b) (chunks_fuel fuel b l).
Proof.
  intros Hb. revert l. induction fuel as [|f IH]; intros l Hl.
  - destruct l; [split; [reflexivity|constructor]|simpl in Hl; lia].
  - destruct l as [|x r]; [split; [reflexivity|constructor]|].
    change (chunks_fuel (S f) b (x :: r)) with (firstn b (x :: r) :: chunks_fuel f b (skipn b (x :: r))).
    destruct (IH (skipn b (x :: r))) as (Hc & Hf); [rewrite skipn_length; cbn [length] in *; lia|].
    split; [simpl concat; rewrite Hc; apply firstn_skipn|].
    constructor; [rewrite firstn_length; cbn [length]; lia|exact Hf].
Qed.

Lemma chunks_concat {X} b (l : list X) : 1 <= b -> concat (chunks b l) = l.
Proof. intros Hb. apply chunks_fuel_spec; [exact Hb|apply le_n]. Qed.

(** the indices that join the cluster of [xi]: the entries that pass the tests of the loop, in the order of the code *)
Definition joined (xi : item) (rest : list (nat * item)) (vis : list nat) : list nat :=
  map fst (filter (fun jx => zlist_eqb (gc_key mode xi) (gc_key mode (snd jx)) && negb (memb (fst jx) vis) && iso xi (snd jx))
                  rest).

Lemma joined_cons_notin xi rest k vis : ~ In k (map fst rest) -> joined xi rest (k :: vis) = joined xi rest vis.
Proof.
  intros Hk. unfold joined. f_equal. apply filter_ext_in. intros [j xj] I. cbn [fst snd].
  rewrite memb_cons_ne; [reflexivity|]. intros ->. apply Hk. now apply (in_map fst) in I.
Qed.

Lemma memb_joined xi rest vis j xj : NoDup (map fst rest) -> In (j, xj) rest ->
  memb j (joined xi rest vis) = Rc xi xj && negb (memb j vis).
Proof.
  intros Hnd I. unfold Rc. rewrite <- andb_assoc, (andb_comm (iso xi xj)), andb_assoc.
  apply eq_true_iff_eq. rewrite memb_spec. unfold joined. rewrite in_map_iff. split.
  - intros ([j' x'] & E & F). simpl in E. subst j'. apply filter_In in F. destruct F as (I' & F).
    now rewrite (NoDup_map_fst_eq _ _ _ _ Hnd I I').
  - intros F. exists (j, xj). split; [reflexivity|]. now apply filter_In.
Qed.

(** on entries with distinct indices the loop is a filter: whether an entry joins does not depend on the entries before it *)
Lemma gc_inner_closed xi c rest : forall cl vis rc, NoDup (map fst rest) ->
  gc_inner iso mode xi c rest (cl, vis, rc) =
  (cl ++ joined xi rest vis, rev (joined xi rest vis) ++ vis, rc ++ map (fun j => (j, c)) (joined xi rest vis)).
Proof.
  induction rest as [|[j xj] r IH]; intros cl vis rc Hnd.
  - cbn. now rewrite !app_nil_r.
  - inversion Hnd as [|? ? Hj Hnd']; subst. unfold joined. cbn [gc_inner filter fst snd].
    destruct (zlist_eqb (gc_key mode xi) (gc_key mode xj) && negb (memb j vis)); [destruct (iso xi xj)|];
      cbn [andb]; [|exact (IH _ _ _ Hnd')..].
    rewrite (IH _ _ _ Hnd'), (joined_cons_notin _ _ _ _ Hj). unfold joined. cbn [map fst rev]. now rewrite <- !app_assoc.
Qed.

Lemma gc_outer_cons i xi rest visited clusters r2c : ~ In i (map fst rest) -> NoDup (map fst rest) ->
  gc_outer iso mode ((i, xi) :: rest) visited clusters r2c =
  if memb i visited then gc_outer iso mode rest visited clusters r2c
  else let js := joined xi rest visited in
       gc_outer iso mode rest (rev js ++ i :: visited) (clusters ++ [i :: js])
                (r2c ++ (i, length clusters) :: map (fun j => (j, length clusters)) js).
Proof.
  intros Hi Hnd. simpl. destruct (memb i visited); [reflexivity|].
  now rewrite (gc_inner_closed _ _ _ _ _ _ Hnd), (joined_cons_notin _ _ _ _ Hi), <- app_assoc.
Qed.

(** [L]: the leaders so far.  An entry still to come is visited iff it is related to a leader, and rule_to_cluster holds
    the position of that leader. *)
Lemma gc_outer_spec todo : forall visited clusters r2c L,
  NoDup (map fst todo) ->
  (forall j xj, In (j, xj) todo -> Rc xj xj = true) ->
  (forall j xj, In (j, xj) todo -> memb j visited = related_in Rc L xj /\ assoc_nat j r2c = index_of Rc L xj) ->
  length clusters = length L ->
  let '(cl_f, r2c_f) := gc_outer iso mode todo visited clusters r2c in
  let Lf := leaders_from Rc L (map snd todo) in
  (exists ext, r2c_f = r2c ++ ext) /\ length cl_f = length Lf /\
  forall j xj, In (j, xj) todo -> assoc_nat j r2c_f = index_of Rc Lf xj.
Proof.
  induction todo as [|[i xi] rest IH]; intros visited clusters r2c L Hnd Hrefl Hinv HN.
  - split; [exists []; now rewrite app_nil_r|]. split; [exact HN|intros j xj []].
  - inversion Hnd as [|? ? Hi Hnd']; subst. rewrite (gc_outer_cons _ _ _ _ _ _ Hi Hnd'). cbn [map snd leaders_from].
    destruct (Hinv i xi (or_introl eq_refl)) as (Vi & Ai). rewrite <- Vi.
    assert (Hrefl' : forall j xj, In (j, xj) rest -> Rc xj xj = true) by (intros j xj H; apply (Hrefl j xj); now right).
    destruct (memb i visited) eqn:Evis.
    + (* already visited: i was attached to an earlier leader, whose position it keeps *)
      specialize (IH visited clusters r2c L Hnd' Hrefl' (fun j xj H => Hinv j xj (or_intror H)) HN).
      destruct (gc_outer iso mode rest visited clusters r2c) as [cl_f r2c_f].
      destruct IH as ((ext & ->) & Hlen & Hall). split; [eauto|]. split; [exact Hlen|].
      intros j xj [[= <- <-]|Hjx]; [|now apply Hall].
      symmetry in Vi. apply index_of_some in Vi. destruct Vi as (n & Hn).
      now rewrite (index_of_leaders_from _ Rc _ _ _ _ Hn), assoc_nat_app, Ai, Hn.
    + (* a new leader, at position [length L] *)
      symmetry in Vi. apply index_of_none in Vi. rewrite Vi in Ai.
      assert (Hidx : index_of Rc (L ++ [xi]) xi = Some (length clusters)).
      { now rewrite index_of_snoc, Vi, (Hrefl i xi (or_introl eq_refl)), HN. }
      cbv zeta. set (js := joined xi rest visited). set (vis' := rev js ++ i :: visited).
      set (rc' := r2c ++ (i, length clusters) :: map (fun j => (j, length clusters)) js).
      specialize (IH vis' (clusters ++ [i :: js]) rc' (L ++ [xi]) Hnd' Hrefl').
      destruct (gc_outer iso mode rest vis' (clusters ++ [i :: js]) rc') as [cl_f r2c_f].
      destruct IH as ((ext & ->) & Hlen & Hall); unfold vis', rc', js.
      * intros j xj Hj. destruct (Hinv j xj (or_intror Hj)) as (Vj & Aj).
        assert (Hne : j <> i) by (intros ->; apply Hi; now apply (in_map fst) in Hj).
        rewrite memb_app, memb_rev, memb_cons_ne, assoc_nat_app, Aj by exact Hne. cbn [assoc_nat].
        rewrite (proj2 (Nat.eqb_neq j i) Hne), assoc_nat_const, (memb_joined _ _ _ _ _ Hnd' Hj), Vj.
        rewrite related_in_app, index_of_snoc, <- HN, (index_of_related _ Rc L xj). simpl.
        destruct (index_of Rc L xj), (Rc xi xj); split; reflexivity.
      * rewrite !app_length. simpl. lia.
      * split; [rewrite <- app_assoc; eauto|]. split; [exact Hlen|].
        intros j xj [[= <- <-]|Hjx]; [|now apply Hall].
        rewrite (index_of_leaders_from _ Rc _ _ _ _ Hidx), <- app_assoc, assoc_nat_app, Ai. simpl. now rewrite Nat.eqb_refl.
Qed.

(** GraphCluster.iterative_cluster / fit compute the first-representative specification *)
Theorem gc_iterative_spec data : (forall x, In x data -> iso x x = true) ->
  let '(clusters, r2c) := gc_iterative iso mode data in
  length clusters = length (leaders Rc data) /\
  forall j x, nth_error data j = Some x -> assoc_nat j r2c = class_of Rc data x.
Proof.
  intros Hrefl. unfold gc_iterative.
  pose proof (gc_outer_spec (enum_from 0 data) [] [] [] []) as H.
  rewrite enum_from_fst, enum_from_snd in H.
  specialize (H (seq_NoDup _ _)).
  destruct (gc_outer iso mode (enum_from 0 data) [] [] []) as [clusters r2c].
  destruct H as (_ & Hlen & Hall); [|now split|reflexivity|].
  - intros j xj Hj. apply enum_from_in in Hj. eapply Rc_refl, Hrefl, nth_error_In, Hj.
  - split; [exact Hlen|]. intros j x Hj. apply Hall, enum_from_in. rewrite Nat.sub_0_r. split; [apply Nat.le_0_l|exact Hj].
Qed.

Theorem gc_fit_spec data : (forall x, In x data -> iso x x = true) ->
  gc_fit iso mode data = map (class_of Rc data) data.
Proof.
  intros Hrefl. unfold gc_fit. pose proof (gc_iterative_spec data Hrefl) as H.
  destruct (gc_iterative iso mode data) as [clusters r2c]. destruct H as (_ & Hall). simpl.
  transitivity (map (class_of Rc data) (map snd (enum_from 0 data))); [|now rewrite enum_from_snd].
  rewrite map_map. apply map_ext_in.
  intros [j x] Hj. apply enum_from_in in Hj. rewrite Nat.sub_0_r in Hj. now apply Hall.
Qed.

Lemma gc_fit_length data : length (gc_fit iso mode data) = length data.
Proof.
  unfold gc_fit. rewrite map_length. rewrite <- (map_length fst), enum_from_fst. apply seq_length.
Qed.

Lemma gc_iterative_length data : (forall y, In y data -> iso y y = true) ->
  length (fst (gc_iterative iso mode data)) = length (leaders Rc data).
Proof. intros Hrefl. pose proof (gc_iterative_spec data Hrefl) as H. now destruct (gc_iterative iso mode data). Qed.

Lemma gc_iterative_total data i x : (forall y, In y data -> iso y y = true) -> nth_error data i = Some x ->
  exists c, class_of Rc data x = Some c /\ c < length (fst (gc_iterative iso mode data)) /\
            In (i, c) (snd (gc_iterative iso mode data)).
Proof.
  intros Hrefl Hx. rewrite (gc_iterative_length data Hrefl). pose proof (gc_iterative_spec data Hrefl) as Hs.
  destruct (class_of_total _ Rc (fun y => In y data) (fun y Hy => Rc_refl y (Hrefl y Hy)) data x) as (c & Ec & Hc);
    [now apply Forall_forall|eapply nth_error_In, Hx|].
  destruct (gc_iterative iso mode data) as [clusters r2c]. destruct Hs as (_ & Hall).
  exists c. split; [exact Ec|]. split; [exact Hc|]. apply assoc_nat_in. simpl. now rewrite (Hall i x Hx).
Qed.

End Refine.

Section Batch.
Variable iso : item -> item -> bool.
Variable mode : attr_mode.

Definition valid_batch_size (bs : option nat) : Prop :=
  match bs with None => True | Some b => 1 <= b end.

Lemma class_z_num o : class_z o = class_num o.
Proof. destruct o; reflexivity. Qed.

Lemma cluster_nil_gc_fit data : (forall x, In x data -> iso x x = true) ->
  fst (cluster iso mode data []) = map class_z (gc_fit iso mode data).
Proof.
  intros Hrefl. rewrite cluster_classify_list, gc_fit_spec by exact Hrefl.
  pose proof (classify_list_nil _ (Rc iso mode) data (fun x Hx => Rc_refl iso mode x (Hrefl x Hx))) as H.
  etransitivity; [exact (f_equal fst H)|].
  simpl. rewrite map_map. apply map_ext. intros x. symmetry. apply class_z_num.
Qed.

Lemma batches_concat {X} (data : list X) bs : valid_batch_size bs ->
  concat (match bs with Some b => chunks b data | None => [data] end) = data.
Proof. destruct bs as [b|]; intros Hbs; [now apply chunks_concat|simpl; apply app_nil_r]. Qed.

Lemma single_batch {X} (data : list X) bs : valid_batch_size bs ->
  length (match bs with Some b => chunks b data | None => [data] end) = 1 ->
  match bs with Some b => chunks b data | None => [data] end = [data].
Proof.
  intros Hbs E. pose proof (batches_concat data bs Hbs) as Hcat.
  destruct (match bs with Some b => chunks b data | None => [data] end) as [|b1 [|b2 r]]; try discriminate.
  simpl in Hcat. rewrite app_nil_r in Hcat. now subst.
Qed.

(** with templates, or over several batches, fit is one left-to-right run of lib_check over the whole list *)
Lemma fit_is_cluster data ts bs picks : valid_batch_size bs ->
  (ts <> [] \/ length (match bs with Some b => chunks b data | None => [data] end) <> 1) ->
  fit iso mode data ts bs picks = cluster iso mode data ts.
Proof.
  intros Hbs Hcase. unfold fit. pose proof (batches_concat data bs Hbs) as Hcat.
  destruct (match bs with Some b => chunks b data | None => [data] end) as [|b1 [|b2 r]] eqn:Eb.
  - rewrite cluster_batches_concat, Hcat, cluster_classify_list. reflexivity.
  - simpl in Hcat. rewrite app_nil_r in Hcat. subst b1.
    destruct ts as [|t ts]; [|reflexivity]. destruct Hcase as [H|H]; [now elim H|simpl in H; now elim H].
  - rewrite cluster_batches_concat, Hcat, cluster_classify_list. reflexivity.
Qed.

Lemma fit_oneshot data bs picks : valid_batch_size bs ->
  length (match bs with Some b => chunks b data | None => [data] end) = 1 ->
  fit iso mode data [] bs picks =
  (map class_z (gc_fit iso mode data), strat_sample data (map class_z (gc_fit iso mode data)) picks).
Proof. intros Hbs E. unfold fit. now rewrite (single_batch data bs Hbs E). Qed.

Theorem batch_equals_oneshot data bs picks : valid_batch_size bs ->
  (forall x, In x data -> iso x x = true) ->
  fst (fit iso mode data [] bs picks) = map class_z (gc_fit iso mode data).
Proof.
  intros Hbs Hrefl.
  destruct (Nat.eq_dec (length (match bs with Some b => chunks b data | None => [data] end)) 1) as [E|E].
  - now rewrite fit_oneshot.
  - rewrite fit_is_cluster by (auto). now apply cluster_nil_gc_fit.
Qed.

End Batch.

Section Theorems.
Variable iso : item -> item -> bool.
Variable mode : attr_mode.
Variable D : item -> Prop.      (* the items on which [iso] is known to be an equivalence (e.g. well-formed graphs) *)
Hypothesis iso_refl : forall x, D x -> iso x x = true.
Hypothesis iso_sym : forall x y, D x -> D y -> iso x y = true -> iso y x = true.
Hypothesis iso_trans : forall x y z, D x -> D y -> D z -> iso x y = true -> iso y z = true -> iso x z = true.
(** the pre-grouping attribute is an isomorphism invariant (as the code reads it: lists as multisets) *)
Hypothesis attr_inv : forall x y, D x -> D y -> iso x y = true -> gc_key mode x = gc_key mode y.

Notation R := (Rc iso mode).

Lemma Rc_iso x y : D x -> D y -> R x y = iso x y.
Proof.
  intros Dx Dy. unfold Rc. destruct (iso x y) eqn:E; [|apply andb_false_r].
  rewrite (attr_inv x y Dx Dy E), zlist_eqb_refl. reflexivity.
Qed.

Lemma R_refl x : D x -> R x x = true.
Proof. intros Dx. rewrite Rc_iso; auto. Qed.
Lemma R_sym x y : D x -> D y -> R x y = true -> R y x = true.
Proof. intros Dx Dy. rewrite !Rc_iso; auto. Qed.
Lemma R_trans x y z : D x -> D y -> D z -> R x y = true -> R y z = true -> R x z = true.
Proof. intros Dx Dy Dz. rewrite !Rc_iso; eauto. Qed.

Lemma iso_refl_in data : Forall D data -> forall x, In x data -> iso x x = true.
Proof. intros H x Hx. rewrite Forall_forall in H. auto. Qed.

Lemma nth_error_gc_fit data i x : Forall D data -> nth_error data i = Some x ->
  nth_error (gc_fit iso mode data) i = Some (class_of R data x).
Proof.
  intros HD Hx. rewrite (gc_fit_spec iso mode data (iso_refl_in data HD)).
  now apply map_nth_error.
Qed.

Lemma class_of_iso data x y : Forall D data -> In x data -> In y data ->
  (class_of R data x = class_of R data y <-> iso x y = true).
Proof.
  intros HD Ix Iy. rewrite (class_of_partition _ R D R_refl R_sym R_trans data x y HD Ix Iy).
  rewrite Forall_forall in HD. rewrite Rc_iso by auto. reflexivity.
Qed.

Theorem partition_full data : Forall D data ->
  length (gc_fit iso mode data) = length data /\
  forall i j x y, nth_error data i = Some x -> nth_error data j = Some y ->
  exists ci cj,
    nth_error (gc_fit iso mode data) i = Some (Some ci) /\
    nth_error (gc_fit iso mode data) j = Some (Some cj) /\
    ci < length (fst (gc_iterative iso mode data)) /\
    In (i, ci) (snd (gc_iterative iso mode data)) /\
    (ci = cj <-> iso x y = true).
Proof.
  intros HD. split; [apply gc_fit_length|]. intros i j x y Hx Hy.
  destruct (gc_iterative_total iso mode data i x (iso_refl_in data HD) Hx) as (ci & Ei & Hci & Hin).
  destruct (gc_iterative_total iso mode data j y (iso_refl_in data HD) Hy) as (cj & Ej & _ & _).
  exists ci, cj. rewrite (nth_error_gc_fit data i x HD Hx), (nth_error_gc_fit data j y HD Hy), Ei, Ej.
  split; [reflexivity|]. split; [reflexivity|]. split; [exact Hci|]. split; [exact Hin|].
  rewrite <- (class_of_iso data x y HD (nth_error_In _ _ Hx) (nth_error_In _ _ Hy)), Ei, Ej.
  split; [congruence|now intros [= ->]].
Qed.

Theorem partition data : Forall D data ->
  forall i j x y, nth_error data i = Some x -> nth_error data j = Some y ->
  exists ci cj,
    nth_error (gc_fit iso mode data) i = Some (Some ci) /\
    nth_error (gc_fit iso mode data) j = Some (Some cj) /\
    (ci = cj <-> iso x y = true).
Proof.
  intros HD i j x y Hx Hy.
  destruct (proj2 (partition_full data HD) i j x y Hx Hy) as (ci & cj & Ei & Ej & _ & _ & Hiff).
  now exists ci, cj.
Qed.

Theorem order_independent data data' : Permutation data data' -> Forall D data ->
  length (fst (gc_iterative iso mode data)) = length (fst (gc_iterative iso mode data')) /\
  forall i j i' j' x y,
    nth_error data i = Some x -> nth_error data j = Some y ->
    nth_error data' i' = Some x -> nth_error data' j' = Some y ->
    (nth_error (gc_fit iso mode data) i = nth_error (gc_fit iso mode data) j <->
     nth_error (gc_fit iso mode data') i' = nth_error (gc_fit iso mode data') j').
Proof.
  intros P HD. assert (HD' : Forall D data') by (eapply Permutation_Forall; eauto).
  split.
  - rewrite !gc_iterative_length by now apply iso_refl_in.
    apply (n_classes_order_indep _ R D R_refl R_sym R_trans); assumption.
  - intros i j i' j' x y Hx Hy Hx' Hy'.
    rewrite (nth_error_gc_fit data i x HD Hx), (nth_error_gc_fit data j y HD Hy).
    rewrite (nth_error_gc_fit data' i' x HD' Hx'), (nth_error_gc_fit data' j' y HD' Hy').
    assert (Ix : In x data) by (eapply nth_error_In; eauto). assert (Iy : In y data) by (eapply nth_error_In; eauto).
    pose proof (class_of_order_indep _ R D R_refl R_sym R_trans data data' x y P HD Ix Iy) as H.
    split; intros E; f_equal; apply H; congruence.
Qed.

(** templates on which "same class" and "isomorphic representatives" coincide *)
Definition coherent_iso (ts : list template) : Prop :=
  Forall D (map fst ts) /\
  forall t t', In t ts -> In t' ts -> (iso (fst t) (fst t') = true <-> snd t = snd t').

(** on the domain the relation the code evaluates is [iso], so the run of lib_check is the run of the specification for [iso] *)
Lemma coherent_iso_coherent ts : coherent_iso ts <-> coherent iso D ts.
Proof. reflexivity. Qed.

Lemma lib_check_classify_iso x ts : Forall D (map fst ts) -> D x -> lib_check iso mode x ts = classify iso ts x.
Proof.
  intros HDt Dx. rewrite lib_check_classify. unfold classify.
  rewrite (find_ext_in (fun t => R (fst t) x) (fun t => iso (fst t) x)); [reflexivity|].
  intros t It. apply Rc_iso; [|exact Dx]. rewrite Forall_forall in HDt. apply HDt, in_map, It.
Qed.

Lemma cluster_classify_iso data : forall ts, coherent_iso ts -> Forall D data ->
  cluster iso mode data ts = classify_list iso ts data.
Proof.
  induction data as [|x r IH]; intros ts Hco HD; simpl; [reflexivity|]. inversion HD as [|? ? Dx HDr]; subst.
  apply coherent_iso_coherent in Hco. rewrite (lib_check_classify_iso x ts (proj1 Hco) Dx).
  pose proof (classify_spec _ iso D iso_refl iso_sym iso_trans ts x Hco Dx) as Hs.
  destruct (classify iso ts x) as [c ts1]. now rewrite (IH ts1 (proj2 (coherent_iso_coherent ts1) (proj1 Hs)) HDr).
Qed.

Theorem incremental x ts : coherent_iso ts -> D x ->
  let '(c, ts') := lib_check iso mode x ts in
  coherent_iso ts' /\
  (forall t, In t ts -> iso (fst t) x = true -> c = snd t /\ ts' = ts) /\
  ((forall t, In t ts -> iso (fst t) x = false) ->
     c = (fold_right Z.max (-1) (map snd ts) + 1)%Z /\ ~ In c (map snd ts) /\ ts' = ts ++ [(x, c)]).
Proof.
  intros Hco Dx. apply coherent_iso_coherent in Hco. rewrite (lib_check_classify_iso x ts (proj1 Hco) Dx).
  pose proof (classify_spec _ iso D iso_refl iso_sym iso_trans ts x Hco Dx) as H.
  destruct (classify iso ts x) as [c ts']. destruct H as (Hco' & _ & _ & Hyes & Hno).
  split; [now apply coherent_iso_coherent|exact (conj Hyes Hno)].
Qed.

Theorem incremental_run data ts cs ts' : coherent_iso ts -> Forall D data ->
  cluster iso mode data ts = (cs, ts') ->
  coherent_iso ts' /\ (exists ext, ts' = ts ++ ext) /\ length cs = length data /\
  (forall i j x y c c', nth_error data i = Some x -> nth_error data j = Some y ->
      nth_error cs i = Some c -> nth_error cs j = Some c' -> (c = c' <-> iso x y = true)) /\
  (forall i x c t, nth_error data i = Some x -> nth_error cs i = Some c -> In t ts' ->
      (c = snd t <-> iso (fst t) x = true)).
Proof.
  intros Hco HD E. rewrite (cluster_classify_iso data ts Hco HD) in E. apply coherent_iso_coherent in Hco.
  destruct (classify_list_partition _ iso D iso_refl iso_sym iso_trans ts data cs ts' Hco HD E) as (Hco' & H).
  split; [now apply coherent_iso_coherent|exact H].
Qed.

Lemma cluster_represented data ts cs ts' : coherent_iso ts -> Forall D data ->
  cluster iso mode data ts = (cs, ts') ->
  forall i x, nth_error data i = Some x ->
  exists t, In t ts' /\ iso (fst t) x = true /\ nth_error cs i = Some (snd t).
Proof.
  intros Hco HD E. rewrite (cluster_classify_iso data ts Hco HD) in E. apply coherent_iso_coherent in Hco.
  pose proof (classify_list_inv _ iso D iso_refl iso_sym iso_trans ts data Hco HD) as H.
  rewrite E in H. apply H.
Qed.

Lemma lib_check_represented ts t x y : coherent_iso ts -> D x -> D y -> In t ts -> iso (fst t) x = true ->
  (snd t = fst (lib_check iso mode y ts) <-> iso x y = true).
Proof.
  intros Hco Dx Dy It Rt. apply coherent_iso_coherent in Hco. rewrite (lib_check_classify_iso y ts (proj1 Hco) Dy).
  exact (classify_represented _ iso D iso_refl iso_sym iso_trans ts t x y Hco Dx Dy It Rt).
Qed.

Theorem batch_any_order data data' bs picks : Permutation data data' -> Forall D data -> valid_batch_size bs ->
  forall i j i' j' x y,
    nth_error data i = Some x -> nth_error data j = Some y ->
    nth_error data' i' = Some x -> nth_error data' j' = Some y ->
    (nth_error (gc_fit iso mode data) i = nth_error (gc_fit iso mode data) j <->
     nth_error (fst (fit iso mode data' [] bs picks)) i' = nth_error (fst (fit iso mode data' [] bs picks)) j').
Proof.
  intros P HD Hbs i j i' j' x y Hx Hy Hx' Hy'.
  assert (HD' : Forall D data') by (eapply Permutation_Forall; eauto).
  rewrite (batch_equals_oneshot iso mode data' bs picks Hbs (iso_refl_in data' HD')).
  rewrite (nth_error_map_inj class_z _ i' j' class_z_inj).
  exact (proj2 (order_independent data data' P HD) i j i' j' x y Hx Hy Hx' Hy').
Qed.

End Theorems.

(** (a) the premises of the theorems are satisfiable and the conclusions discriminate: a concrete
    equivalence (same tens digit of the id) on four items. *)
Module Example_abstract.
Definition iso0 (x y : item) : bool := N.eqb (it_id x / 10) (it_id y / 10).
Definition mk (n : N) : item := MkItem n [] (LG [] []).
Definition data := [mk 11; mk 25; mk 17; mk 20].
Lemma iso0_refl x : True -> iso0 x x = true. Proof. intros _. apply N.eqb_refl. Qed.
Lemma iso0_sym x y : True -> True -> iso0 x y = true -> iso0 y x = true.
Proof. unfold iso0. intros _ _ H. apply N.eqb_eq in H. apply N.eqb_eq. congruence. Qed.
Lemma iso0_trans x y z : True -> True -> True -> iso0 x y = true -> iso0 y z = true -> iso0 x z = true.
Proof. unfold iso0. intros _ _ _ H1 H2. apply N.eqb_eq in H1, H2. apply N.eqb_eq. congruence. Qed.
Lemma attr0 x y : True -> True -> iso0 x y = true -> gc_key ANone x = gc_key ANone y. Proof. reflexivity. Qed.
Lemma data_D : Forall (fun _ : item => True) data. Proof. repeat constructor. Qed.

Example partition_nonvacuous :
  gc_fit iso0 ANone data = [Some 0; Some 1; Some 0; Some 1] /\
  exists ci cj, nth_error (gc_fit iso0 ANone data) 0 = Some (Some ci) /\
                nth_error (gc_fit iso0 ANone data) 2 = Some (Some cj) /\ (ci = cj <-> iso0 (mk 11) (mk 17) = true).
Proof.
  split; [vm_compute; reflexivity|].
  exact (partition iso0 ANone (fun _ => True) iso0_refl iso0_sym iso0_trans attr0 data data_D 0 2 (mk 11) (mk 17) eq_refl eq_refl).
Qed.

Example order_independent_nonvacuous :
  gc_fit iso0 ANone (rev data) = [Some 0; Some 1; Some 0; Some 1] /\
  length (fst (gc_iterative iso0 ANone data)) = length (fst (gc_iterative iso0 ANone (rev data))).
Proof.
  split; [vm_compute; reflexivity|].
  exact (proj1 (order_independent iso0 ANone (fun _ => True) iso0_refl iso0_sym iso0_trans attr0 data (rev data)
                  (Permutation_rev data) data_D)).
Qed.

Example incremental_nonvacuous :
  lib_check iso0 ANone (mk 31) [(mk 11, 7%Z); (mk 25, 3%Z)] = (8%Z, [(mk 11, 7%Z); (mk 25, 3%Z); (mk 31, 8%Z)]) /\
  lib_check iso0 ANone (mk 29) [(mk 11, 7%Z); (mk 25, 3%Z)] = (3%Z, [(mk 11, 7%Z); (mk 25, 3%Z)]) /\
  coherent_iso iso0 (fun _ => True) [(mk 11, 7%Z); (mk 25, 3%Z)].
Proof.
  split; [vm_compute; reflexivity|]. split; [vm_compute; reflexivity|].
  split; [repeat constructor|].
  intros t t' [<-|[<-|[]]] [<-|[<-|[]]]; vm_compute; split; congruence.
Qed.

Example batch_equals_oneshot_nonvacuous :
  fit iso0 ANone data [] (Some 3) [] = ([0; 1; 0; 1]%Z, [(mk 11, 0%Z); (mk 25, 1%Z)]) /\
  fit iso0 ANone data [] None [1; 0] = ([0; 1; 0; 1]%Z, [(mk 17, 0%Z); (mk 25, 1%Z)]) /\
  fst (fit iso0 ANone data [] (Some 3) []) = map class_z (gc_fit iso0 ANone data).
Proof.
  split; [vm_compute; reflexivity|]. split; [vm_compute; reflexivity|].
  apply batch_equals_oneshot; [simpl; lia|]. intros x _. apply N.eqb_refl.
Qed.
End Example_abstract.

(** (b) the instance used by the correspondence: isomorphism on element, charge and order decided by the
    verified enumerator, on three tiny reaction-centre-like graphs (the second has one order changed). *)
Module Example_graphs.
Definition g1 : graph := LG [(1, [Some 1; Some 0]); (2, [Some 2; Some 0])]%N [((1, 2)%N, Some [2; 0]%Z)].
Definition g2 : graph := LG [(1, [Some 1; Some 0]); (2, [Some 2; Some 0])]%N [((1, 2)%N, Some [4; 0]%Z)].
Definition g3 : graph := LG [(8, [Some 2; Some 0]); (5, [Some 1; None])]%N [((8, 5)%N, Some [2; 0]%Z)].
Definition pool := [MkItem 0 [] g1; MkItem 1 [] g2; MkItem 2 [] g3].
Example graph_instance_nonvacuous :
  gc_fit (item_iso true [9; 0]%N) ANone pool = [Some 0; Some 1; Some 0] /\
  fst (fit (item_iso true [9; 0]%N) ANone pool [] (Some 1) []) = [0; 1; 0]%Z /\
  gc_fit (item_iso false [9; 0]%N) ANone pool = [Some 0; Some 0; Some 0].
Proof. repeat apply conj; vm_compute; reflexivity. Qed.
End Example_graphs.
