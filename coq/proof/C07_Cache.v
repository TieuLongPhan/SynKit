(** C07 — what the class-level WL cache can contain and exactly when it is written (the key sets the correspondence observes
    after every query); isomorphic as a preorder; get_mappings against containment and against isomorphic; the argument guards.
    Stdlib lists. *)
From Coq Require Import List NArith Bool Arith Lia.
From SK Require Import lib.Tok model.C07_Model
  proof.C07_Spec proof.C07_History proof.C07_Main proof.C07_Final.
Import ListNotations.

Definition keys (c : cache) : list ckey := map fst c.
(** a key that a filtering engine of the case may write: its own node_attrs (in its own order) *)
Definition key_of_filtering_engine (es : list engine) (k : ckey) : Prop :=
  exists e, e_wl (enth es e) = true /\ snd k = e_na (enth es e).

Lemma wl_cached_keys na gi g c :
  incl (keys c) (keys (snd (wl_cached na gi g c))) /\
  (forall k, In k (keys (snd (wl_cached na gi g c))) -> In k (keys c) \/ k = (gi, na)).
Proof.
  unfold wl_cached. destruct (cache_get (gi, na) c); simpl.
  - split; [apply incl_refl | auto].
  - split; [intros k I; right; exact I | intros k [E|I]; auto].
Qed.

Lemma cache_get_some_in k c h : cache_get k c = Some h -> In k (keys c).
Proof.
  induction c as [|[k' h'] r IH]; simpl; [discriminate|]. destruct (ckey_eqb k k') eqn:E.
  - intros _. left. apply ckey_eqb_eq in E. auto.
  - intros H. right. apply IH. exact H.
Qed.

Lemma wl_cached_has na gi g c : In (gi, na) (keys (snd (wl_cached na gi g c))).
Proof.
  unfold wl_cached. destruct (cache_get (gi, na) c) eqn:E; simpl; [eapply cache_get_some_in; eauto | left; reflexivity].
Qed.

(** _pre_check touches the cache exactly when the engine filters, the orders are equal and the host has at least the pattern's number
    of edges: then it looks up (and enters, if absent) the histogram of the host, then that of the pattern *)
Lemma pre_check_cache e hi H pi P c :
  snd (pre_check e hi H pi P c) =
  if e_wl e && (n_nodes H =? n_nodes P) && (n_edges P <=? n_edges H)
  then snd (wl_cached (e_na e) pi P (snd (wl_cached (e_na e) hi H c))) else c.
Proof.
  unfold pre_check. destruct (e_wl e); simpl; [|destruct (_ || _); reflexivity].
  destruct (Nat.eqb_spec (n_nodes H) (n_nodes P)) as [E|E]; simpl; [|destruct (_ || _); reflexivity].
  rewrite E, Nat.ltb_irrefl. simpl.
  destruct (Nat.ltb_spec (n_edges H) (n_edges P)), (Nat.leb_spec (n_edges P) (n_edges H)); try lia; [reflexivity|].
  destruct (wl_cached (e_na e) hi H c) as [hw c1]. simpl. destruct (wl_cached (e_na e) pi P c1). reflexivity.
Qed.

Lemma pre_check_keys e hi H pi P c :
  incl (keys c) (keys (snd (pre_check e hi H pi P c))) /\
  (forall k, In k (keys (snd (pre_check e hi H pi P c))) -> In k (keys c) \/ (e_wl e = true /\ snd k = e_na e)).
Proof.
  rewrite pre_check_cache. destruct (e_wl e); simpl; [|split; [apply incl_refl | auto]].
  destruct (_ && _); [|split; [apply incl_refl | auto]].
  destruct (wl_cached_keys (e_na e) hi H c) as (A1 & A2). destruct (wl_cached_keys (e_na e) pi P (snd (wl_cached (e_na e) hi H c))) as (B1 & B2).
  split; [intros k I; apply B1, A1, I|].
  intros k I. destruct (B2 k I) as [I1| ->]; [|right; auto]. destruct (A2 k I1) as [I0| ->]; [left; exact I0 | right; auto].
Qed.

(** _pre_check touches the cache EXACTLY when the engine filters, the orders are equal and the host has at least the pattern's number of
    edges; then both (graph, node_attrs) entries are present afterwards; otherwise the cache is returned as it was *)
Theorem pre_check_writes e hi H pi P c :
  (e_wl e = true /\ n_nodes H = n_nodes P /\ n_edges P <= n_edges H ->
     In (hi, e_na e) (keys (snd (pre_check e hi H pi P c))) /\ In (pi, e_na e) (keys (snd (pre_check e hi H pi P c)))) /\
  (~ (e_wl e = true /\ n_nodes H = n_nodes P /\ n_edges P <= n_edges H) -> snd (pre_check e hi H pi P c) = c).
Proof.
  rewrite pre_check_cache. split.
  - intros (W & En & Ee). rewrite W, En, Nat.eqb_refl, (proj2 (Nat.leb_le _ _) Ee). simpl.
    split; [apply wl_cached_keys, wl_cached_has | apply wl_cached_has].
  - intros Hn. destruct (e_wl e), (Nat.eqb_spec (n_nodes H) (n_nodes P)), (Nat.leb_spec (n_edges P) (n_edges H)); simpl; auto.
    exfalso. apply Hn. auto.
Qed.

Section Keys.
Variable vf2b : bool -> (attrs -> attrs -> bool) -> (attrs -> attrs -> bool) -> graph -> graph -> bool.
Variable enum : (attrs -> attrs -> bool) -> (attrs -> attrs -> bool) -> graph -> graph -> list mapping.

(** one query: the cache only grows, and only by keys of filtering engines *)
Theorem step_keys gs es q c :
  incl (keys c) (keys (snd (step vf2b enum gs es q c))) /\
  (forall k, In k (keys (snd (step vf2b enum gs es q c))) -> In k (keys c) \/ key_of_filtering_engine es k).
Proof.
  destruct (step_via_pre vf2b enum gs es q c) as [E|(e & hi & pi & E & _)]; rewrite E; [split; [apply incl_refl | auto]|].
  destruct (pre_check_keys (enth es e) hi (gnth gs hi) pi (gnth gs pi) c) as (A & B). split; [exact A|].
  intros k I. destruct (B k I) as [I0|(W & Ek)]; [left; exact I0 | right; exists e; auto].
Qed.

(** a whole history from the empty cache: every key is a filtering engine's own attribute selection *)
Theorem end_cache_keys gs es qs : forall c,
  (forall k, In k (keys c) -> key_of_filtering_engine es k) ->
  forall k, In k (keys (end_cache vf2b enum gs es qs c)) -> key_of_filtering_engine es k.
Proof.
  induction qs as [|q qs IH]; intros c Hc k I; simpl in I; [apply Hc; exact I|].
  apply (IH (snd (step vf2b enum gs es q c))); [|exact I].
  intros k' I'. destruct (proj2 (step_keys gs es q c) k' I') as [I0|F]; auto.
Qed.

(** the observed trace of key sets is increasing *)
Theorem cache_trace_grows gs es qs : forall c ks,
  nth_error (cache_trace vf2b enum gs es qs c) 0 = Some ks -> incl (keys c) ks.
Proof.
  intros c ks. destruct qs as [|q qs]; simpl; [discriminate|]. intros [= <-]. apply step_keys.
Qed.

Theorem cache_trace_chain gs es qs : forall c n k1 k2,
  nth_error (cache_trace vf2b enum gs es qs c) n = Some k1 ->
  nth_error (cache_trace vf2b enum gs es qs c) (S n) = Some k2 -> incl k1 k2.
Proof.
  induction qs as [|q qs IH]; intros c n k1 k2; simpl; [destruct n; discriminate|].
  destruct n as [|n]; simpl.
  - intros [= <-] E2. apply (cache_trace_grows gs es qs _ _ E2).
  - apply IH.
Qed.

End Keys.

Lemma keys_nil es : forall k, In k (keys []) -> key_of_filtering_engine es k.
Proof. intros k []. Qed.

Lemma nm_eng_refl e a : nm_eng e a a = true.
Proof. apply nm_eng_spec. split; [reflexivity | lia]. Qed.
Lemma em_eng_refl e a : em_eng e a a = true.
Proof. apply em_eng_spec. reflexivity. Qed.
Lemma nm_eng_trans e a b c : nm_eng e a b = true -> nm_eng e b c = true -> nm_eng e a c = true.
Proof. rewrite !nm_eng_spec. intros (A1 & A2) (B1 & B2). split; [intros k I; rewrite A1, B1; auto | lia]. Qed.
Lemma em_eng_trans e a b c : em_eng e a b = true -> em_eng e b c = true -> em_eng e a c = true.
Proof. rewrite !em_eng_spec. intros A B k I. rewrite A, B; auto. Qed.

Lemma iso_map_id e g : gwf g -> iso_map (nm_eng e) (em_eng e) g g (fun u => u).
Proof.
  intros W. split; [split; [|split]|].
  - intros u Iu. split; [exact Iu | apply nm_eng_refl].
  - auto.
  - intros u v Iu Iv Hne. destruct (LGraph.adj g u v); [apply em_eng_refl | exact Logic.I].
  - intros h Ih. exists h. auto.
Qed.

Lemma iso_map_compose e g1 g2 g3 f g : iso_map (nm_eng e) (em_eng e) g1 g2 f -> iso_map (nm_eng e) (em_eng e) g2 g3 g ->
  iso_map (nm_eng e) (em_eng e) g1 g3 (fun u => f (g u)).
Proof.
  intros ((F1 & F2 & F3) & Fo) ((G1 & G2 & G3) & Go). split; [split; [|split]|].
  - intros u Iu. destruct (G1 u Iu) as (Ig & Ng). destruct (F1 (g u) Ig) as (If & Nf). split; [exact If | eapply nm_eng_trans; eauto].
  - intros u v Iu Iv E. apply G2; auto. apply F2; auto; [apply G1; auto | apply G1; auto].
  - intros u v Iu Iv Hne.
    assert (Hg : g u <> g v) by (intros E; apply Hne; apply G2; auto).
    specialize (G3 u v Iu Iv Hne). specialize (F3 (g u) (g v) (proj1 (G1 u Iu)) (proj1 (G1 v Iv)) Hg).
    destruct (LGraph.adj g3 u v), (LGraph.adj g2 (g u) (g v)), (LGraph.adj g1 (f (g u)) (f (g v))); auto; try discriminate; try contradiction.
    eapply em_eng_trans; eauto.
  - intros h Ih. destruct (Fo h Ih) as (m & Im & <-). destruct (Go m Im) as (u & Iu & <-). exists u. auto.
Qed.

Section Preorder.
Variable vf2b : bool -> (attrs -> attrs -> bool) -> (attrs -> attrs -> bool) -> graph -> graph -> bool.
Hypothesis VB : vf2b_contract vf2b.

Theorem iso_preorder gs e :
  (forall i c, cache_inv gs c -> gwf (gnth gs i) -> fst (isomorphic vf2b e i (gnth gs i) i (gnth gs i) c) = true) /\
  (forall i j k c1 c2 c3, cache_inv gs c1 -> cache_inv gs c2 -> cache_inv gs c3 -> gwf (gnth gs i) -> gwf (gnth gs j) -> gwf (gnth gs k) ->
     fst (isomorphic vf2b e i (gnth gs i) j (gnth gs j) c1) = true -> fst (isomorphic vf2b e j (gnth gs j) k (gnth gs k) c2) = true ->
     fst (isomorphic vf2b e i (gnth gs i) k (gnth gs k) c3) = true).
Proof.
  split.
  - intros i c Hc W. apply (iso_verdict vf2b VB gs e i i c Hc W W). eexists. apply iso_map_id. exact W.
  - intros i j k c1 c2 c3 H1 H2 H3 Wi Wj Wk A B.
    apply (iso_verdict vf2b VB gs e i j c1 H1 Wi Wj) in A. apply (iso_verdict vf2b VB gs e j k c2 H2 Wj Wk) in B.
    destruct A as (f & Hf). destruct B as (g & Hg). apply (iso_verdict vf2b VB gs e i k c3 H3 Wi Wk).
    eexists. eapply iso_map_compose; eauto.
Qed.
End Preorder.

Section Corollaries.
Variable vf2b : bool -> (attrs -> attrs -> bool) -> (attrs -> attrs -> bool) -> graph -> graph -> bool.
Variable enum : (attrs -> attrs -> bool) -> (attrs -> attrs -> bool) -> graph -> graph -> list mapping.
Hypothesis VB : vf2b_contract vf2b.
Hypothesis EN : enum_contract enum.

(** get_mappings returns something exactly when the pattern is contained (max_mappings <> 0) *)
Theorem embeddings_iff gs e hi pi c : cache_inv gs c -> gwf (gnth gs hi) -> gwf (gnth gs pi) -> e_mm e <> Some 0%N ->
  (fst (get_mappings vf2b enum e hi (gnth gs hi) pi (gnth gs pi) c) <> [] <->
   contained true (nm_eng e) (em_eng e) (gnth gs hi) (gnth gs pi)).
Proof.
  intros Hc WH WP Hmm. destruct (embeddings vf2b enum VB EN gs e hi pi c Hc WH WP) as (Va & Ne). split.
  - intros Hn. destruct (fst (get_mappings vf2b enum e hi (gnth gs hi) pi (gnth gs pi) c)) as [|m r] eqn:E; [congruence|].
    destruct (Va m (or_introl eq_refl)) as (_ & _ & He). exists (mfun m). exact He.
  - intros C. apply Ne; auto.
Qed.

(** isomorphic never means "is a subgraph of": graphs with different numbers of nodes are not isomorphic for any engine *)
Theorem iso_unequal_orders gs e i j c : cache_inv gs c -> gwf (gnth gs i) -> gwf (gnth gs j) ->
  n_nodes (gnth gs i) <> n_nodes (gnth gs j) -> fst (isomorphic vf2b e i (gnth gs i) j (gnth gs j) c) = false.
Proof.
  intros Hc Wi Wj Hne. destruct (fst (isomorphic vf2b e i (gnth gs i) j (gnth gs j) c)) eqn:E; [|reflexivity].
  apply (iso_verdict vf2b VB gs e i j c Hc Wi Wj) in E. destruct E as (f & Hi). exfalso. apply Hne. eapply iso_sizes; eauto.
Qed.
Theorem iso_maps_consistent gs e i j c c' : cache_inv gs c -> cache_inv gs c' -> gwf (gnth gs i) -> gwf (gnth gs j) ->
  n_nodes (gnth gs i) = n_nodes (gnth gs j) -> e_mm e <> Some 0%N ->
  (fst (isomorphic vf2b e i (gnth gs i) j (gnth gs j) c) = true <->
   fst (get_mappings vf2b enum e i (gnth gs i) j (gnth gs j) c') <> []).
Proof.
  intros Hc Hc' Wi Wj En Hmm. rewrite (iso_verdict vf2b VB gs e i j c Hc Wi Wj), iso_iff_contained, embeddings_iff; auto. tauto.
Qed.
End Corollaries.

(** argument guards of the entry points as the model evaluates them: an engine method handed a non-Graph argument raises TypeError
    before anything else (the cache is not touched); find_graph_isomorphism on two different networkx classes answers None *)
Theorem argument_guards vf2b enum gs es c :
  (forall mp e i j, (i = None \/ j = None) -> step vf2b enum gs es (QObj mp e i j) c = (L [tN 99; tN 1], c)) /\
  (forall t1 t2 i j ud fa a b d, t1 <> t2 -> step vf2b enum gs es (QFgiT t1 t2 i j ud fa a b d) c = (tbool false, c)).
Proof.
  split.
  - intros mp e [i|] [j|] [H|H]; try discriminate; reflexivity.
  - intros t1 t2 i j ud fa a b d Hne. simpl. replace (N.eqb t1 t2) with false by (symmetry; apply N.eqb_neq; exact Hne). reflexivity.
Qed.
