(** C18 — WLCanonicalizer (model/C18_WLModel.v): the colour cells never split a class of exchangeable nodes.
    For every attribute selection and every combination of the options n_iter / include_in_neighbors / include_out_neighbors,
    a self-map of the view that preserves the SELECTED node attributes, adjacency (both directions, loops) and the SELECTED
    edge attributes preserves every WL colour; so every true orbit lies inside one colour cell (the "sound half" the code's
    documentation promises for its approximate orbits). *)
From Coq Require Import List NArith ZArith Bool Arith Lia Permutation.
From SK Require Import lib.IRSortKeys lib.IRCore lib.IRSearch lib.StrJoin lib.C18_IRLeaves model.C18_Model model.C18_AttrModel model.C18_WLModel
  proof.C18_Order proof.C18_Spec proof.C18_Aut proof.C18_Graph proof.C18_Invariant.
From SK Require Import proof.C18_Label proof.C18_Count proof.C18_Orbits proof.C18_OrbCanon.
From SK Require lib.IRInst.
Import ListNotations.

(** a self-map preserving the selected attributes *)
Definition is_autA (g : vgraph) (t : ltab) (nk : list nsel) (ek : list esel) (s : N -> N) : Prop :=
  inj_on s (node_ids g) /\ (forall v, In v (node_ids g) -> In (s v) (node_ids g)) /\
  (forall v, In v (node_ids g) -> nkey g t nk (s v) = nkey g t nk v) /\
  (forall u v, In u (node_ids g) -> In v (node_ids g) ->
     option_map (ekey ek) (find_arc g (s u) (s v)) = option_map (ekey ek) (find_arc g u v)).

(* ---------------- insertion sort of tuples (duplicates kept) is permutation invariant ---------------- *)
Lemma sort_tuples_perm l l' : Permutation l l' -> sort_tuples l = sort_tuples l'.
Proof.
  exact (isort_perm _ lexleb IRInst.lexleb_total IRInst.lexleb_trans IRInst.lexleb_antisym l l').
Qed.

(* ---------------- arcs into / out of a node, listed along the node list ---------------- *)
Definition arc_in (g : vgraph) (v u : N) : list arc := match find_arc g u v with Some a => [(u, v, a)] | None => [] end.
Definition arc_out (g : vgraph) (v u : N) : list arc := match find_arc g v u with Some a => [(v, u, a)] | None => [] end.

Lemma in_arcs_perm g v : wf g ->
  Permutation (filter (fun e => N.eqb (adst e) v) (varcs g)) (flat_map (arc_in g v) (node_ids g)).
Proof.
  intros Hw. destruct Hw as (Hn & Ha & Hends). apply NoDup_Permutation.
  - apply NoDup_filter. apply (NoDup_map_inv akey). exact Ha.
  - apply NoDup_flat_map_disj; auto.
    + intros a _. unfold arc_in. destruct (find_arc g a v); repeat constructor; auto.
    + intros a b x _ _ Hne. unfold arc_in. destruct (find_arc g a v), (find_arc g b v); simpl; try tauto.
      intros [<-|[]] [E|[]]. apply Hne. congruence.
  - intros [[u w] a]. rewrite filter_In, in_flat_map. unfold adst, arc_in. simpl. split.
    + intros [Hin E]. apply N.eqb_eq in E. subst w. exists u. split; [apply (Hends _ Hin)|].
      unfold find_arc. rewrite (find_arc_l_in _ _ _ _ Ha Hin). left. reflexivity.
    + intros (u' & Hu' & Hx). unfold find_arc in Hx. destruct (find_arc_l (varcs g) u' v) eqn:E; [|contradiction].
      destruct Hx as [Hx|[]]. inversion Hx; subst. split; [apply find_arc_l_some; auto|apply N.eqb_refl].
Qed.
Lemma out_arcs_perm g v : wf g ->
  Permutation (filter (fun e => N.eqb (asrc e) v) (varcs g)) (flat_map (arc_out g v) (node_ids g)).
Proof. intros Hw. exact (out_arcs_by_dst g v (node_ids g) Hw (proj1 Hw) (Permutation_refl _)). Qed.

Lemma flat_map_map {A B C} (f : A -> B) (h : B -> list C) l : flat_map h (map f l) = flat_map (fun x => h (f x)) l.
Proof. induction l; simpl; auto. rewrite IHl. reflexivity. Qed.
Lemma map_flat_map {A B C} (f : B -> C) (h : A -> list B) l : map f (flat_map h l) = flat_map (fun x => map f (h x)) l.
Proof. induction l; simpl; auto. rewrite map_app, IHl. reflexivity. Qed.
Lemma flat_map_ext_in' {A B} (f h : A -> list B) l : (forall x, In x l -> f x = h x) -> flat_map f l = flat_map h l.
Proof. induction l; simpl; intros H; auto. rewrite H, IHl; auto. Qed.
Lemma perm_flat_map {A B} (f : A -> list B) l l' : Permutation l l' -> Permutation (flat_map f l) (flat_map f l').
Proof.
  induction 1; simpl; auto.
  - apply Permutation_app_head. auto.
  - rewrite !app_assoc. apply Permutation_app_tail. apply Permutation_app_comm.
  - eapply perm_trans; eauto.
Qed.

(** [is_autA g t nk ek] is [pres_maps] at the selected node keys and the selected edge keys *)
Lemma is_autA_pres g t nk ek s :
  is_autA g t nk ek s <-> pres_maps _ _ (node_ids g) (nkey g t nk) (fun u v => option_map (ekey ek) (find_arc g u v)) s.
Proof. reflexivity. Qed.

(** A self-map that preserves a reading [ev] of the arcs permutes, for every node, the arcs into it and the arcs out of
    it: any function of an arc that only depends on [ev] of its attributes and on what [s] preserves of its other end
    takes the same values, as a multiset, at [s v] and at [v]. *)
Section ArcsAut.
Variables (T1 T2 X : Type) (g : vgraph) (i1 : N -> T1) (ev : eattr -> T2) (s : N -> N) (F : arc -> X).
Hypothesis Hw : wf g.
Hypothesis Hs : pres_maps _ _ (node_ids g) i1 (fun u v => option_map ev (find_arc g u v)) s.

Lemma in_arcs_aut v : In v (node_ids g) ->
  (forall u a b, In u (node_ids g) -> ev a = ev b -> F (s u, s v, a) = F (u, v, b)) ->
  Permutation (map F (filter (fun e => N.eqb (adst e) (s v)) (varcs g))) (map F (filter (fun e => N.eqb (adst e) v) (varcs g))).
Proof.
  intros Hv HF. destruct Hs as (Hi & Hcl & Hk & He).
  eapply perm_trans; [apply Permutation_map; apply in_arcs_perm; auto|].
  eapply perm_trans; [|apply Permutation_sym; apply Permutation_map; apply in_arcs_perm; auto].
  rewrite !map_flat_map.
  eapply perm_trans; [apply perm_flat_map; apply Permutation_sym; exact (pres_perm _ _ _ _ _ (proj1 Hw) s Hs)|].
  rewrite flat_map_map. apply Permutation_refl'. apply flat_map_ext_in'.
  intros u Hu. unfold arc_in. specialize (He u v Hu Hv).
  destruct (find_arc g (s u) (s v)) as [a|], (find_arc g u v) as [b|]; simpl in *; try discriminate; auto.
  f_equal. apply HF; [exact Hu|]. inversion He. reflexivity.
Qed.
Lemma out_arcs_aut v : In v (node_ids g) ->
  (forall u a b, In u (node_ids g) -> ev a = ev b -> F (s v, s u, a) = F (v, u, b)) ->
  Permutation (map F (filter (fun e => N.eqb (asrc e) (s v)) (varcs g))) (map F (filter (fun e => N.eqb (asrc e) v) (varcs g))).
Proof.
  intros Hv HF. destruct Hs as (Hi & Hcl & Hk & He).
  eapply perm_trans; [apply Permutation_map; apply out_arcs_perm; auto|].
  eapply perm_trans; [|apply Permutation_sym; apply Permutation_map; apply out_arcs_perm; auto].
  rewrite !map_flat_map.
  eapply perm_trans; [apply perm_flat_map; apply Permutation_sym; exact (pres_perm _ _ _ _ _ (proj1 Hw) s Hs)|].
  rewrite flat_map_map. apply Permutation_refl'. apply flat_map_ext_in'.
  intros u Hu. unfold arc_out. specialize (He v u Hv Hu).
  destruct (find_arc g (s v) (s u)) as [a|], (find_arc g v u) as [b|]; simpl in *; try discriminate; auto.
  f_equal. apply HF; [exact Hu|]. inversion He. reflexivity.
Qed.
End ArcsAut.

Section Aut.
Variables (g : vgraph) (t : ltab) (nk : list nsel) (ek : list esel) (s : N -> N).
Hypothesis Hw : wf g.
Hypothesis Hs : is_autA g t nk ek s.

(** a colouring that the self-map preserves *)
Definition cinv (c : coloring) : Prop := forall v, In v (node_ids g) -> col_get c (s v) = col_get c v.

Definition itemF (c : coloring) (sel : arc -> N) (e : arc) : list Z := col_get c (sel e) :: ekey ek (aattr e).

Lemma in_items_aut c v : cinv c -> In v (node_ids g) ->
  Permutation (map (itemF c asrc) (filter (fun e => N.eqb (adst e) (s v)) (varcs g)))
              (map (itemF c asrc) (filter (fun e => N.eqb (adst e) v) (varcs g))).
Proof.
  intros Hc Hv. apply (in_arcs_aut _ _ _ g (nkey g t nk) (ekey ek) s _ Hw (proj1 (is_autA_pres g t nk ek s) Hs) v Hv).
  intros u a b Hu E. unfold itemF, asrc, aattr. cbn [fst snd]. rewrite (Hc u Hu), E. reflexivity.
Qed.
Lemma out_items_aut c v : cinv c -> In v (node_ids g) ->
  Permutation (map (itemF c adst) (filter (fun e => N.eqb (asrc e) (s v)) (varcs g)))
              (map (itemF c adst) (filter (fun e => N.eqb (asrc e) v) (varcs g))).
Proof.
  intros Hc Hv. apply (out_arcs_aut _ _ _ g (nkey g t nk) (ekey ek) s _ Hw (proj1 (is_autA_pres g t nk ek s) Hs) v Hv).
  intros u a b Hu E. unfold itemF, adst, aattr. cbn [fst snd]. rewrite (Hc u Hu), E. reflexivity.
Qed.

Lemma cinv_nil : cinv [].
Proof. intros v _. reflexivity. Qed.

Lemma indeg_aut v : In v (node_ids g) -> indeg g (s v) = indeg g v.
Proof.
  intros Hv. unfold indeg. pose proof (Permutation_length (in_items_aut [] v cinv_nil Hv)) as H.
  rewrite !map_length in H. exact H.
Qed.
Lemma outdeg_aut v : In v (node_ids g) -> outdeg g (s v) = outdeg g v.
Proof.
  intros Hv. unfold outdeg. pose proof (Permutation_length (out_items_aut [] v cinv_nil Hv)) as H.
  rewrite !map_length in H. exact H.
Qed.

Lemma wl_seed_aut v : In v (node_ids g) -> wl_seed g t nk (s v) = wl_seed g t nk v.
Proof.
  intros Hv. unfold wl_seed. rewrite indeg_aut, outdeg_aut by auto.
  destruct Hs as (_ & _ & Hk & _). rewrite Hk by auto. reflexivity.
Qed.

Lemma wl_sig_aut inb outb c v : cinv c -> In v (node_ids g) -> wl_sig g ek inb outb c (s v) = wl_sig g ek inb outb c v.
Proof.
  intros Hc Hv. unfold wl_sig, in_items, out_items.
  change (fun e : arc => col_get c (asrc e) :: ekey ek (aattr e)) with (itemF c asrc).
  change (fun e : arc => col_get c (adst e) :: ekey ek (aattr e)) with (itemF c adst).
  rewrite (sort_tuples_perm _ _ (in_items_aut c v Hc Hv)), (sort_tuples_perm _ _ (out_items_aut c v Hc Hv)), Hc by auto.
  reflexivity.
Qed.

Lemma col_get_recolor nodes sg v : In v nodes ->
  col_get (recolor nodes sg) v = rank_in (sort_dedup lexleb (map sg nodes)) (sg v) 0%Z.
Proof.
  unfold recolor. generalize (sort_dedup lexleb (map sg nodes)) as keys. intros keys.
  induction nodes as [|u nodes IH]; simpl; [tauto|]. intros Hin.
  destruct (N.eqb_spec u v) as [->|Hne]; [reflexivity|]. destruct Hin as [E|Hin]; [congruence|auto].
Qed.

Lemma recolor_cinv sg : (forall v, In v (node_ids g) -> sg (s v) = sg v) -> cinv (recolor (node_ids g) sg).
Proof.
  intros Hsg v Hv. destruct Hs as (_ & Hcl & _). rewrite !col_get_recolor by auto. rewrite Hsg by auto. reflexivity.
Qed.

Lemma wl_rounds_cinv inb outb n : forall c, cinv c -> cinv (wl_rounds g ek inb outb n c).
Proof.
  induction n as [|n IH]; intros c Hc; simpl; auto.
  apply IH. apply recolor_cinv. intros v Hv. apply wl_sig_aut; auto.
Qed.

Theorem wl_colors_aut inb outb n_iter v : In v (node_ids g) ->
  col_get (wl_colors g t nk ek inb outb n_iter) (s v) = col_get (wl_colors g t nk ek inb outb n_iter) v.
Proof.
  revert v. change (cinv (wl_colors g t nk ek inb outb n_iter)). unfold wl_colors.
  apply wl_rounds_cinv. apply recolor_cinv. intros v Hv. apply wl_seed_aut; auto.
Qed.
End Aut.

(** the reported cells: a node and its image lie in the same cell *)
Theorem wl_cells_aut g t nk ek s inb outb n_iter : wf g -> is_autA g t nk ek s ->
  forall c, In c (wl_cells g (wl_colors g t nk ek inb outb n_iter)) ->
  forall v, In v (node_ids g) -> (In v c <-> In (s v) c).
Proof.
  intros Hw Hs c Hc v Hv. unfold wl_cells in Hc. apply in_map_iff in Hc. destruct Hc as (k & <- & _).
  rewrite !filter_In. rewrite (wl_colors_aut g t nk ek s Hw Hs) by auto.
  destruct Hs as (_ & Hcl & _). split; intros [I E]; auto.
Qed.

(** every node is in exactly the cell of its colour: the cells cover the nodes and are pairwise disjoint *)
Theorem wl_cells_cover g c v : In v (node_ids g) -> In v (map fst c) -> exists cell, In cell (wl_cells g c) /\ In v cell.
Proof.
  intros Hv Hc. unfold wl_cells. exists (filter (fun u => Z.eqb (col_get c u) (col_get c v)) (node_ids g)). split.
  - apply in_map_iff. exists (col_get c v). split; auto.
    apply (sort_dedup_in Z.leb). { intros a b H1 H2. apply Z.leb_le in H1, H2. lia. }
    clear Hv. induction c as [|[u k] c IH]; simpl in *; [tauto|]. destruct (N.eqb_spec u v); auto. destruct Hc; [congruence|auto].
  - apply filter_In. split; auto. apply Z.eqb_refl.
Qed.
Theorem wl_cells_disjoint g c c1 c2 v : In c1 (wl_cells g c) -> In c2 (wl_cells g c) -> In v c1 -> In v c2 -> c1 = c2.
Proof.
  unfold wl_cells. intros H1 H2. apply in_map_iff in H1, H2. destruct H1 as (k1 & <- & _), H2 as (k2 & <- & _).
  rewrite !filter_In. intros [_ E1] [_ E2]. apply Z.eqb_eq in E1, E2. assert (k1 = k2) by congruence. subst. reflexivity.
Qed.

(** the default canonicaliser's notion of a structure-preserving self-map is one for every selection without 'label' *)
Lemma is_aut_is_autA g t nk ek s : Forall (fun x => x <> NLabel) nk -> is_aut g s -> is_autA g t nk ek s.
Proof.
  intros Hnk (Hi & Hcl & Hk & He). repeat split; auto.
  - intros v Hv. unfold nkey. apply map_ext_in. intros x Hx. rewrite Forall_forall in Hnk. specialize (Hnk x Hx).
    destruct x; simpl; try congruence; rewrite Hk by auto; reflexivity.
  - intros u v Hu Hv. rewrite He by auto. reflexivity.
Qed.

Theorem wl_never_splits_orbit g s inb outb n_iter : wf g -> is_aut g s ->
  forall c, In c (wl_cells g (wl_colors g [] [NKind] [ERole; EStoich] inb outb n_iter)) ->
  forall v, In v (node_ids g) -> (In v c <-> In (s v) c).
Proof.
  intros Hw Hs. apply wl_cells_aut; auto. apply is_aut_is_autA; auto. repeat constructor; discriminate.
Qed.

(** the approximate orbits are unions of exact ones: two nodes that the canonicaliser reports in one orbit set have the same WL
    colour (via C18_orbits: they are exchanged by a structure-preserving self-map) *)
Theorem wl_coarser_than_orbits g lab p inb outb n_iter : wf g -> kinds_ok g -> arcs_ok g -> fst (canon_search g) = Some (lab, p) ->
  forall c u v, In c (orbits_from_perms (min_leaves g)) -> In u c -> In v c -> In u (node_ids g) ->
    col_get (wl_colors g [] [NKind] [ERole; EStoich] inb outb n_iter) u = col_get (wl_colors g [] [NKind] [ERole; EStoich] inb outb n_iter) v.
Proof.
  intros Hw Hk Ha Hb c u v Hc Hu Hv Hun.
  destruct (proj1 (canon_orbits g lab p Hw Hk Ha Hb u v Hun)) as (s & Hs & <-); [exists c; auto|].
  symmetry. apply (wl_colors_aut g [] [NKind] [ERole; EStoich] s Hw); auto.
  apply is_aut_is_autA; auto. repeat constructor; discriminate.
Qed.
