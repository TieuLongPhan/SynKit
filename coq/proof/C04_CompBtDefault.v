(** C04 — strategies comp / bt (and any engine whose kept mappings are monomorphisms) through the reactor OBJECT in the default
    mode, to the end of its_list: _explicit_h raises on none of the glued ITS graphs (proof/C04_TotalDefault.v) and keeps the
    folded reaction (proof/C04_Explicit.v). *)
From Coq Require Import List NArith ZArith Bool.
From SK Require Import lib.LGraph model.C06_Model lib.C06_Spec proof.C06_Comp model.C03_Model model.C04_Model model.C04_Reactor proof.C03_Proof
                       proof.C04_Glue proof.C04_Default proof.C04_DefaultProof proof.C04_Engine proof.C04_Chain proof.C04_Explicit
                       proof.C04_DefaultChain proof.C04_TotalDefault proof.C04_MonoMatch proof.C04_DefaultChainTotal proof.C04_CompBt.
Import ListNotations.
Local Open Scope Z_scope.

Section DefaultObject.
  Variable engine : sarg -> option N -> bool -> C06_Model.graph -> C06_Model.graph -> outcome.
  Variable rematch : nat -> hostg -> molg -> list C03_Model.mapping.
  Variables (core invert : bool) (G H : hostg).
  Hypothesis W : pair_wfb G H = true.
  Hypothesis ME : mode_E G H = true.
  Let A := if invert then H else G.
  Let B := if invert then G else H.
  Let tpl := template core invert G H.
  Hypothesis OK : default_okb A B tpl = true.
  Hypothesis CC : core = true -> centre_carries (its_construct G H) = true.
  Hypothesis VAL : own_valence_okb core invert G H = true.
  Let host := substrate invert G H.

  (** whatever engine produced the kept mappings: if they are monomorphisms and one of them glues to the pair of folded sides,
      its_list (with the _explicit_h stage) contains an ITS that decomposes to the reaction in implicit-hydrogen normal form *)
  Theorem default_its_total (o : ropts) (rc : its) (l r : molg) (ms : list C03_Model.mapping) (y : C03_Model.mapping) (T : its) :
    o_explicit_h o = true ->
    rule_of core invert G H = Some (rc, l, r) ->
    compute_mappings engine o host (rc, l, r) = Some ms ->
    (forall m, In m ms -> is_mono (tr_host host) (tr_pat l) m) ->
    In y ms -> glue host rc y = Some T -> regen_exact T host (h_to_implicit_host B) = true ->
    exists gs T', fst (read_its engine rematch o host (rc, l, r) fresh) = Some gs /\ In T' gs /\ regen_folded T' A B = true.
  Proof.
    intros Ho Er Em Hs Iy Eg RE.
    destruct (default_facts core invert G H W ME OK CC rc l r Er) as (_ & _ & _ & Hf).
    pose proof (default_pattern_nonneg core invert G H rc l r W ME OK CC Er) as Hnn.
    (* no glued ITS makes _explicit_h raise *)
    assert (NC : snd (explicit_all (glued_val rematch host (rc, l, r) ms)) = false).
    { apply explicit_all_ok. intros T0 IT. apply (glued_val_in rematch host rc l r ms T0 Hf) in IT. destruct IT as (y0 & Iy0 & Eg0).
      exact (default_mono_total core invert G H rc l r y0 T0 W ME OK CC VAL Er Hnn (Hs y0 Iy0) Eg0). }
    destruct (its_of_mappings_explicit engine rematch o host rc l r ms y T Ho Hf Em NC Iy Eg) as (gs & T' & ms' & Egs & IT' & EX).
    exists gs, T'. split; [exact Egs|]. split; [exact IT'|].
    exact (own_explicit_end core invert G H rc y T T' ms' W OK Eg RE EX).
  Qed.
End DefaultObject.

(** comp / bt for the own templates in the default mode, at the level of the reactor object, for ANY embed_threshold [thr]
    (None = the default 5000) that is not below C06's bound *)
Section OwnDefaultAt.
  Variable enum : list N -> list N -> list C06_Model.mapping.
  Variable rematch : nat -> hostg -> molg -> list C03_Model.mapping.
  Variables (core invert : bool) (G H : hostg) (thr : option N).
  Hypothesis W : pair_wfb G H = true.
  Hypothesis ME : mode_E G H = true.
  Hypothesis OK : default_okb (if invert then H else G) (if invert then G else H) (template core invert G H) = true.
  Hypothesis CC : core = true -> centre_carries (its_construct G H) = true.
  Hypothesis VAL : own_valence_okb core invert G H = true.
  Variables (rc : its) (l r : molg).
  Hypothesis Er : rule_of core invert G H = Some (rc, l, r).
  Let host := substrate invert G H.
  Hypothesis Hor : oracle_ok enum (tr_host host) (tr_pat l).

  Theorem own_comp_default_at :
    (0 <? length (comps (tr_pat l)))%nat && (length (comps (tr_pat l)) <? length (comps (tr_host host)))%nat = false ->
    ((length (comps (tr_host host)) <? length (comps (tr_pat l)))%nat = true \/ id_separatingb (tr_host host) (tr_pat l) = true) ->
    (comp_bound enum true (tr_host host) (tr_pat l) <= dflt DEFAULT_THRESHOLD thr)%N ->
    exists gs T', fst (read_its (api_engine enum) rematch (own_opts invert true (SMember 1%N) thr false) host (rc, l, r) fresh) = Some gs /\
                  In T' gs /\ regen_folded T' (if invert then H else G) (if invert then G else H) = true.
  Proof.
    intros NG Hc Hb. destruct (default_facts core invert G H W ME OK CC rc l r Er) as (PW' & D' & LO & Hf).
    pose proof (default_pattern_nonneg core invert G H rc l r W ME OK CC Er) as Hnn.
    pose proof (default_gwf_host core invert G H W OK) as GH. pose proof (gwf_tr_pat_describes _ _ rc l D' LO) as GP.
    destruct (comp_regenerates_at enum _ _ rc l r PW' D' LO Hf Hnn GH GP Hor (own_opts invert true (SMember 1%N) thr false) NG)
      as (ms & y & Tt & Em & Hs & Iy & Eg & Rg); [|reflexivity|reflexivity|exact Hb|].
    { destruct Hc as [Hc|Hc]; [left; exact Hc|right; exact (default_sep core invert G H W ME OK CC rc l r Er Hc)]. }
    exact (default_its_total (api_engine enum) rematch core invert G H W ME OK CC VAL (own_opts invert true (SMember 1%N) thr false) rc l r ms y Tt eq_refl Er Em Hs Iy Eg Rg).
  Qed.
  Theorem own_bt_default_at :
    ((0 <? length (comps (tr_pat l)))%nat && (length (comps (tr_pat l)) <? length (comps (tr_host host)))%nat = true \/
     (length (comps (tr_host host)) <? length (comps (tr_pat l)))%nat = true \/ id_separatingb (tr_host host) (tr_pat l) = true) ->
    (N.max (comp_bound enum true (tr_host host) (tr_pat l)) (lenN (enum (node_ids (tr_host host)) (node_ids (tr_pat l)))) <= dflt DEFAULT_THRESHOLD thr)%N ->
    exists gs T', fst (read_its (api_engine enum) rematch (own_opts invert true (SMember 2%N) thr false) host (rc, l, r) fresh) = Some gs /\
                  In T' gs /\ regen_folded T' (if invert then H else G) (if invert then G else H) = true.
  Proof.
    intros Hc Hb. destruct (default_facts core invert G H W ME OK CC rc l r Er) as (PW' & D' & LO & Hf).
    pose proof (default_pattern_nonneg core invert G H rc l r W ME OK CC Er) as Hnn.
    pose proof (default_gwf_host core invert G H W OK) as GH. pose proof (gwf_tr_pat_describes _ _ rc l D' LO) as GP.
    destruct (bt_regenerates_at enum _ _ rc l r PW' D' LO Hf Hnn GH GP Hor (own_opts invert true (SMember 2%N) thr false))
      as (ms & y & Tt & Em & Hs & Iy & Eg & Rg); [|reflexivity|reflexivity|exact Hb|].
    { destruct Hc as [Hc|[Hc|Hc]]; [left; exact Hc|right; left; exact Hc|right; right; exact (default_sep core invert G H W ME OK CC rc l r Er Hc)]. }
    exact (default_its_total (api_engine enum) rematch core invert G H W ME OK CC VAL (own_opts invert true (SMember 2%N) thr false) rc l r ms y Tt eq_refl Er Em Hs Iy Eg Rg).
  Qed.
End OwnDefaultAt.

(** hence from some threshold on *)
Section OwnDefaultObject.
  Variable enum : list N -> list N -> list C06_Model.mapping.
  Variable rematch : nat -> hostg -> molg -> list C03_Model.mapping.
  Variables (core invert : bool) (G H : hostg).
  Hypothesis W : pair_wfb G H = true.
  Hypothesis ME : mode_E G H = true.
  Hypothesis OK : default_okb (if invert then H else G) (if invert then G else H) (template core invert G H) = true.
  Hypothesis CC : core = true -> centre_carries (its_construct G H) = true.
  Hypothesis VAL : own_valence_okb core invert G H = true.
  Variables (rc : its) (l r : molg).
  Hypothesis Er : rule_of core invert G H = Some (rc, l, r).
  Let host := substrate invert G H.
  Hypothesis Hor : oracle_ok enum (tr_host host) (tr_pat l).

  Definition default_reactor_opts (s T : N) : ropts := own_opts invert true (SMember s) (Some T) false.

  Theorem own_comp_default_object :
    (0 <? length (comps (tr_pat l)))%nat && (length (comps (tr_pat l)) <? length (comps (tr_host host)))%nat = false ->
    ((length (comps (tr_host host)) <? length (comps (tr_pat l)))%nat = true \/ id_separatingb (tr_host host) (tr_pat l) = true) ->
    exists T0 : N, forall T : N, (T0 <= T)%N ->
      exists gs T', fst (read_its (api_engine enum) rematch (default_reactor_opts 1 T) host (rc, l, r) fresh) = Some gs /\
                    In T' gs /\ regen_folded T' (if invert then H else G) (if invert then G else H) = true.
  Proof.
    intros NG Hc. exists (comp_bound enum true (tr_host host) (tr_pat l)). intros T HT.
    exact (own_comp_default_at enum rematch core invert G H (Some T) W ME OK CC VAL rc l r Er Hor NG Hc HT).
  Qed.
  Theorem own_bt_default_object :
    ((0 <? length (comps (tr_pat l)))%nat && (length (comps (tr_pat l)) <? length (comps (tr_host host)))%nat = true \/
     (length (comps (tr_host host)) <? length (comps (tr_pat l)))%nat = true \/ id_separatingb (tr_host host) (tr_pat l) = true) ->
    exists T0 : N, forall T : N, (T0 <= T)%N ->
      exists gs T', fst (read_its (api_engine enum) rematch (default_reactor_opts 2 T) host (rc, l, r) fresh) = Some gs /\
                    In T' gs /\ regen_folded T' (if invert then H else G) (if invert then G else H) = true.
  Proof.
    intros Hc. exists (N.max (comp_bound enum true (tr_host host) (tr_pat l)) (lenN (enum (node_ids (tr_host host)) (node_ids (tr_pat l))))).
    intros T HT. exact (own_bt_default_at enum rematch core invert G H (Some T) W ME OK CC VAL rc l r Er Hor Hc HT).
  Qed.
End OwnDefaultObject.

