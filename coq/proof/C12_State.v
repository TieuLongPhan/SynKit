(** C12 -- proofs about the matcher OBJECT (model/C12_State.v): constructor normalisation, the matchers on raw attribute
    dictionaries against the projected graphs of C12_Model.v, the cache as a state machine (every search call overwrites
    the whole cache, reads never change it, a failed facade call leaves the reset cache), and the property lifted to
    HISTORIES of calls on one object. *)
From Coq Require Import List NArith ZArith Bool Arith Lia Permutation.
From SK Require Import lib.Tok lib.LGraph model.C12_Model model.C12_Check model.C12_State
     proof.C12_Search proof.C12_Proof proof.C12_Prune proof.C12_Component.
Import ListNotations.

(* ------------------------------------------------------------------ 1. MCSMatcher.__init__ *)
Definition names_of (a : ctor_args) : list N := match a_node_attrs a with Some l => l | None => [K_ELEMENT] end.

Lemma mk_config_spec a :
  match mk_config a with
  | Some c =>
      c_names c = names_of a /\ length (c_defs c) = length (c_names c) /\
      c_defs c = match a_node_defaults a with Some l => l | None => repeat V_STAR (length (names_of a)) end /\
      c_enames c <> [] /\
      c_enames c = match a_edge_attrs a with Some (x :: r) => x :: r | _ => [K_ORDER] end /\
      c_prune c = a_prune_wc a /\ c_auto c = a_prune_auto a /\ c_wc c = a_wildcard a /\ c_ekey c = a_element_key a
  | None => exists l, a_node_defaults a = Some l /\ length l <> length (names_of a)
  end.
Proof.
  unfold mk_config, names_of. destruct a as [na nd ea pw pa w ek]. simpl.
  set (names := match na with Some l => l | None => [K_ELEMENT] end).
  destruct nd as [l|]; simpl.
  - destruct (Nat.eqb_spec (length l) (length names)) as [E|E]; simpl.
    + repeat split; auto. destruct ea as [[|x r]|]; discriminate.
    + exists l. split; [reflexivity|exact E].
  - rewrite repeat_length, Nat.eqb_refl. simpl. repeat split; auto.
    + apply repeat_length.
    + destruct ea as [[|x r]|]; discriminate.
Qed.

Lemma mk_config_lengths a cfg : mk_config a = Some cfg -> length (c_defs cfg) = length (c_names cfg).
Proof. intros E. pose proof (mk_config_spec a) as S. rewrite E in S. exact (proj1 (proj2 S)). Qed.

(* ------------------------------------------------------------------ 2. matchers on raw dictionaries = matchers on the projection *)
Lemma node_match_raw_project names : forall defs h p, length defs = length names ->
  node_match_raw names defs h p =
  attrs_match defs (map (fun k => LGraph.assoc k h) names) (map (fun k => LGraph.assoc k p) names).
Proof.
  induction names as [|k ks IH]; intros [|d ds] h p E; simpl in *; try discriminate; [reflexivity|].
  rewrite IH by lia. reflexivity.
Qed.

Lemma evalue_code_eqb a b : Z.eqb (evalue_code a) (evalue_code b) = evalue_eqb a b.
Proof.
  destruct a as [x|x], b as [y|y]; unfold evalue_code, evalue_eqb.
  - destruct (Z.eqb_spec x y) as [->|E]; [apply Z.eqb_refl|]. apply Z.eqb_neq. lia.
  - apply Z.eqb_neq. lia.
  - apply Z.eqb_neq. lia.
  - destruct (N.eqb_spec x y) as [->|E]; [apply Z.eqb_refl|]. apply Z.eqb_neq. lia.
Qed.

Lemma edge_match_raw_project names h p :
  edge_match_raw names h p =
  edge_match (map (fun k => option_map evalue_code (LGraph.assoc k h)) names)
             (map (fun k => option_map evalue_code (LGraph.assoc k p)) names).
Proof.
  induction names as [|k ks IH]; simpl; [reflexivity|].
  destruct (LGraph.assoc k h) as [a|], (LGraph.assoc k p) as [b|]; simpl; try reflexivity.
  - rewrite <- IH, evalue_code_eqb. destruct a, b; reflexivity.
  - destruct a; reflexivity.
  - exact IH.
Qed.

(* ------------------------------------------------------------------ 3. the projected graph *)
Lemma project_ids cfg g : node_ids (project cfg g) = node_ids g.
Proof. unfold node_ids, project. simpl. rewrite map_map. apply map_ext. reflexivity. Qed.

Lemma project_nodup cfg g : NoDup (node_ids g) -> NoDup (node_ids (project cfg g)).
Proof. now rewrite project_ids. Qed.

Lemma project_label cfg g u : label (project cfg g) u = option_map (project_node cfg) (label g u).
Proof.
  unfold label, project. simpl. induction (gnodes g) as [|[k a] r IH]; simpl; [reflexivity|].
  destruct (N.eqb u k); [reflexivity|exact IH].
Qed.

Lemma project_adj cfg g u v : LGraph.adj (project cfg g) u v = option_map (project_edge cfg) (LGraph.adj g u v).
Proof.
  unfold LGraph.adj, project. simpl. induction (gedges g) as [|[[a b] x] r IH]; simpl; [reflexivity|].
  destruct ((N.eqb a u && N.eqb b v) || (N.eqb a v && N.eqb b u)); [reflexivity|exact IH].
Qed.

Lemma assoc_of_in {V} k (l : list (N * V)) : In k (map fst l) -> exists v, LGraph.assoc k l = Some v.
Proof.
  induction l as [|[k' v] r IH]; simpl; [intros []|]. intros [E|I].
  - subst. rewrite N.eqb_refl. now exists v.
  - destruct (N.eqb k k'); [now exists v|now apply IH].
Qed.

(** the validity clause read on the graphs the CALLER passes (raw attribute dictionaries, configured names and defaults) *)
Definition raw_common_induced (cfg : config) (ga gb : rgraph) (m : mapping) : Prop :=
  NoDup (map fst m) /\ NoDup (map snd m) /\
  (forall p h, In (p, h) m ->
     exists a b, label ga p = Some a /\ label gb h = Some b /\ node_match_raw (c_names cfg) (c_defs cfg) b a = true) /\
  (forall p h p' h', In (p, h) m -> In (p', h') m -> p <> p' ->
     match LGraph.adj ga p p', LGraph.adj gb h h' with
     | Some b, Some b' => edge_match_raw (c_enames cfg) b' b = true
     | None, None => True
     | _, _ => False
     end).

Lemma project_node_clause cfg ga gb p h : length (c_defs cfg) = length (c_names cfg) ->
  In p (node_ids (project cfg ga)) /\ In h (node_ids (project cfg gb)) /\
  node_match (c_defs cfg) (label (project cfg gb) h) (label (project cfg ga) p) = true <->
  exists a b, label ga p = Some a /\ label gb h = Some b /\ node_match_raw (c_names cfg) (c_defs cfg) b a = true.
Proof.
  intros EL. rewrite !project_ids, !project_label. split.
  - intros (_ & _ & Hm). destruct (label gb h) as [b|], (label ga p) as [a|]; try discriminate.
    exists a, b. split; [reflexivity|split; [reflexivity|]]. rewrite (node_match_raw_project _ _ _ _ EL). exact Hm.
  - intros (a & b & La & Lb & Hm). rewrite La, Lb. split; [|split].
    + apply assoc_in in La. change p with (fst (p, a)). now apply in_map.
    + apply assoc_in in Lb. change h with (fst (h, b)). now apply in_map.
    + simpl. rewrite <- (node_match_raw_project _ _ _ _ EL). exact Hm.
Qed.

Lemma project_edge_clause cfg em (em_raw : reattr -> reattr -> bool) ga gb p h p' h' :
  (forall x y, em (project_edge cfg x) (project_edge cfg y) = em_raw x y) ->
  match LGraph.adj (project cfg ga) p p', LGraph.adj (project cfg gb) h h' with
  | Some b, Some b' => em b' b = true
  | None, None => True
  | _, _ => False
  end <->
  match LGraph.adj ga p p', LGraph.adj gb h h' with
  | Some b, Some b' => em_raw b' b = true
  | None, None => True
  | _, _ => False
  end.
Proof.
  intros Hem. rewrite !project_adj.
  destruct (LGraph.adj ga p p'), (LGraph.adj gb h h'); cbn [option_map]; try reflexivity. now rewrite Hem.
Qed.

(** the validity clause on projected graphs read on the raw dictionaries, for any edge matcher [em] on selected values that
    has a reading [em_raw] on the dictionaries (both copies of the matcher share the node matcher and the projection) *)
Lemma project_ci cfg em (em_raw : reattr -> reattr -> bool) ga gb m :
  length (c_defs cfg) = length (c_names cfg) ->
  (forall h p, em (project_edge cfg h) (project_edge cfg p) = em_raw h p) ->
  common_induced (node_match (c_defs cfg)) em (project cfg ga) (project cfg gb) m <->
  NoDup (map fst m) /\ NoDup (map snd m) /\
  (forall p h, In (p, h) m ->
     exists a b, label ga p = Some a /\ label gb h = Some b /\ node_match_raw (c_names cfg) (c_defs cfg) b a = true) /\
  (forall p h p' h', In (p, h) m -> In (p', h') m -> p <> p' ->
     match LGraph.adj ga p p', LGraph.adj gb h h' with
     | Some b, Some b' => em_raw b' b = true
     | None, None => True
     | _, _ => False
     end).
Proof.
  intros EL Hem. unfold common_induced. split; intros (A & B & C & D); (split; [exact A|split; [exact B|split]]).
  - intros p h I. apply (project_node_clause cfg ga gb p h EL). exact (C p h I).
  - intros p h p' h' I I' Hne. apply (project_edge_clause cfg em em_raw ga gb p h p' h' Hem). exact (D p h p' h' I I' Hne).
  - intros p h I. apply (project_node_clause cfg ga gb p h EL). exact (C p h I).
  - intros p h p' h' I I' Hne. apply (project_edge_clause cfg em em_raw ga gb p h p' h' Hem). exact (D p h p' h' I I' Hne).
Qed.

Theorem project_ci_iff cfg ga gb m : length (c_defs cfg) = length (c_names cfg) ->
  common_induced (node_match (c_defs cfg)) edge_match (project cfg ga) (project cfg gb) m <-> raw_common_induced cfg ga gb m.
Proof.
  intros EL. apply (project_ci cfg edge_match (edge_match_raw (c_enames cfg)) ga gb m EL).
  intros h p. symmetry. apply edge_match_raw_project.
Qed.

(** which atoms wildcard pruning removes, read on the raw dictionary: data.get(element_key) == wildcard_element *)
Lemma project_wc_node cfg g p :
  wc_node (c_wc cfg) (project cfg g) p =
  match label g p with
  | Some a => match LGraph.assoc (c_ekey cfg) a with Some e => N.eqb e (c_wc cfg) | None => false end
  | None => false
  end.
Proof. unfold wc_node. rewrite project_label. destruct (label g p); reflexivity. Qed.

(* ------------------------------------------------------------------ 4. the cache as a state machine *)
Lemma m_step_read cfg st ds : fst (m_step cfg st (MReads ds)) = st.
Proof. reflexivity. Qed.

(** a search call does not look at the cache: state AND answer are those of a fresh object *)
Lemma m_step_search cfg st st' o : is_read o = false -> m_step cfg st o = m_step cfg st' o.
Proof. destruct o; simpl; [reflexivity|reflexivity|discriminate|reflexivity|reflexivity|reflexivity]. Qed.

(** history independence for any object whose search calls do not look at the state and whose reads leave it alone ([run]
    iterates [step]; both copies of the matcher are instances): after ANY history, a search call followed by reads leaves
    the state that this call leaves from any other state *)
Section History.
Variables (S O T : Type) (step : S -> O -> S * T) (is_rd : O -> bool) (run : S -> list O -> S).
Hypothesis run_nil : forall s, run s [] = s.
Hypothesis run_cons : forall s o r, run s (o :: r) = run (fst (step s o)) r.
Hypothesis read_keeps : forall s o, is_rd o = true -> fst (step s o) = s.
Hypothesis search_fresh : forall s s' o, is_rd o = false -> step s o = step s' o.

Lemma run_reads s rds : forallb is_rd rds = true -> run s rds = s.
Proof.
  induction rds as [|o r IH]; simpl; intros H; [apply run_nil|]. apply andb_prop in H.
  rewrite run_cons, (read_keeps s o (proj1 H)). exact (IH (proj2 H)).
Qed.

Lemma run_last_search s s0 ops o rds : is_rd o = false -> forallb is_rd rds = true ->
  run s (ops ++ o :: rds) = fst (step s0 o).
Proof.
  intros Ho Hr. revert s. induction ops as [|x r IH]; intros s; simpl; rewrite run_cons; [|apply IH].
  rewrite (search_fresh s s0 o Ho). now apply run_reads.
Qed.
End History.

Theorem history_last_search cfg st ops o rds : is_read o = false -> forallb is_read rds = true ->
  m_run cfg st (ops ++ o :: rds) = fst (m_step cfg s_init o).
Proof.
  apply (run_last_search _ _ _ (m_step cfg) is_read (m_run cfg)); [reflexivity|reflexivity| |apply m_step_search].
  intros s [] H; try discriminate H. reflexivity.
Qed.

(** ... and every answer along the way is the answer a fresh object would give *)
Theorem history_answers_fresh cfg st ops o : is_read o = false ->
  snd (m_step cfg (m_run cfg st ops) o) = snd (m_step cfg s_init o).
Proof. intros Ho. now rewrite (m_step_search cfg _ s_init o Ho). Qed.

Lemma m_get_state_of r d :
  m_get (state_of r) d =
  match d with
  | DP2H => Some (get_mappings PatternToHost r)
  | D12 => Some (get_mappings G1toG2 r)
  | D21 => Some (get_mappings G2toG1 r)
  | DBad => None
  end.
Proof. destruct d; reflexivity. Qed.

Lemma m_find_fresh cfg g1 g2 mcs st :
  fst (m_step cfg st (MFind g1 g2 mcs)) =
  state_of (find_common_subgraph (c_defs cfg) (c_prune cfg) (c_wc cfg) (project cfg g1) (project cfg g2) mcs).
Proof. reflexivity. Qed.

(** before any search, and after a facade call with an unknown side: nothing stored, direction unknown, every direction
    string (also an unknown one) is answered with the empty list *)
Theorem state_unknown :
  (forall d, m_get s_init d = Some []) /\
  (forall cfg st x mcs comp, m_step cfg st (MRc x SBad mcs comp) = (s_init, L (I (-1) :: m_views s_init))).
Proof. split; [intros []; reflexivity|reflexivity]. Qed.

(** reachable caches: the flag is unknown only while nothing is stored *)
Definition cache_ok (st : mstate) : Prop := s_flag st = None -> s_maps st = [] /\ s_last st = 0%nat.

Lemma m_step_ok cfg st o : cache_ok st -> cache_ok (fst (m_step cfg st o)).
Proof.
  intros H. destruct o as [g1 g2 mcs|x sd mcs comp|ds|g1 g2 mcs ch|g1 g2 ch|x sd ch]; simpl.
  - intros E. discriminate.
  - unfold m_rc. destruct (pick_sides x sd) as [[ga gb]|]; simpl.
    + destruct comp; simpl; intros E; discriminate.
    + intros _. split; reflexivity.
  - exact H.
  - destruct (apply_choices _ ch); simpl; [intros E; discriminate|intros _; split; reflexivity].
  - unfold mol_tok. destruct (find_mcs_mol_with _ _ _ _ _ ch); simpl; [intros E; discriminate|intros _; split; reflexivity].
  - destruct (pick_sides x sd) as [[ga gb]|]; [|intros _; split; reflexivity].
    unfold mol_tok. destruct (find_mcs_mol_with _ _ _ _ _ ch); simpl; [intros E; discriminate|intros _; split; reflexivity].
Qed.

Lemma m_run_ok cfg ops : forall st, cache_ok st -> cache_ok (m_run cfg st ops).
Proof. induction ops as [|o r IH]; intros st H; simpl; [exact H|]. apply IH. now apply m_step_ok. Qed.

(** the two direction requests are mutually inverse in every reachable cache; the pattern->host request equals one of them;
    an unknown direction is refused exactly when a search has run *)
Theorem reads_inverse cfg ops :
  let st := m_run cfg s_init ops in
  exists l12 l21 lp, m_get st D12 = Some l12 /\ m_get st D21 = Some l21 /\ m_get st DP2H = Some lp /\
    l21 = map invert_mapping l12 /\ l12 = map invert_mapping l21 /\ (lp = l12 \/ lp = l21) /\
    (m_get st DBad = None <-> s_flag st <> None).
Proof.
  intros st. assert (H : cache_ok st) by (apply m_run_ok; intros _; split; reflexivity).
  unfold m_get. destruct (s_flag st) as [[|]|] eqn:Ef.
  - exists (s_maps st), (map invert_mapping (s_maps st)), (s_maps st). repeat split; auto.
    + now rewrite map_invert_involutive.
    + intros _. discriminate.
  - exists (map invert_mapping (s_maps st)), (s_maps st), (s_maps st). repeat split; auto.
    + now rewrite map_invert_involutive.
    + intros _. discriminate.
  - destruct (H Ef) as (Em & _). rewrite Em. exists [], [], []. repeat split; auto; try discriminate.
    intros Hn. now elim Hn.
Qed.

(* ------------------------------------------------------------------ 5. the property over histories *)
Section Histories.
Variable cfg : config.
Notation nm := (node_match (c_defs cfg)).
Notation pr := (fun g => prune_graph (c_prune cfg) (c_wc cfg) (project cfg g)).

(** whatever happened to the object before: after find_common_subgraph(G1, G2, mcs) and any number of reads, what the three
    direction requests return is valid for (G1, G2) as pruned and projected by THIS object's options; in maximum mode all
    sizes equal last_size, no common induced mapping is larger, and every one of that size is returned *)
Theorem history_find_valid st ops g1 g2 mcs rds :
  NoDup (node_ids g1) -> NoDup (node_ids g2) -> forallb is_read rds = true ->
  let stf := m_run cfg st (ops ++ MFind g1 g2 mcs :: rds) in
  exists l12 l21 lp, m_get stf D12 = Some l12 /\ m_get stf D21 = Some l21 /\ m_get stf DP2H = Some lp /\ m_get stf DBad = None /\
    l21 = map invert_mapping l12 /\ l12 = map invert_mapping l21 /\ (lp = l12 \/ lp = l21) /\
    (forall m, In m l12 -> common_induced nm edge_match (pr g1) (pr g2) m /\ (1 <= length m)%nat) /\
    (forall m, In m l21 -> common_induced nm edge_match (pr g2) (pr g1) m /\ (1 <= length m)%nat) /\
    (mcs = true ->
       (forall m, In m l12 -> length m = s_last stf) /\
       (forall m, common_induced nm edge_match (pr g1) (pr g2) m -> (length m <= s_last stf)%nat) /\
       (forall m, common_induced nm edge_match (pr g1) (pr g2) m -> length m = s_last stf -> (1 <= s_last stf)%nat ->
          exists m', In m' l12 /\ Permutation m m')) /\
    (mcs = false ->
       forall m, common_induced nm edge_match (pr g1) (pr g2) m -> (1 <= length m)%nat -> exists m', In m' l12 /\ Permutation m m').
Proof.
  intros N1 N2 Hr stf. unfold stf. rewrite (history_last_search cfg st ops (MFind g1 g2 mcs) rds eq_refl Hr).
  rewrite m_find_fresh.
  pose proof (project_nodup cfg g1 N1) as P1. pose proof (project_nodup cfg g2 N2) as P2.
  set (r := find_common_subgraph (c_defs cfg) (c_prune cfg) (c_wc cfg) (project cfg g1) (project cfg g2) mcs).
  exists (get_mappings G1toG2 r), (get_mappings G2toG1 r), (get_mappings PatternToHost r).
  destruct (directions_inverse r) as (I1 & I2).
  refine (conj eq_refl (conj eq_refl (conj eq_refl (conj eq_refl (conj I1 (conj I2 (conj _ (conj _ (conj _ (conj _ _)))))))))).
  - rewrite pattern_to_host_direction. destruct (r_pattern_is_g1 r); [now left|now right].
  - intros m. exact (proj1 (fcs_valid _ _ _ _ _ P1 P2 mcs m)).
  - intros m. exact (proj1 (proj2 (fcs_valid _ _ _ _ _ P1 P2 mcs m))).
  - unfold r. intros ->. destruct (fcs_maximum (c_defs cfg) (c_prune cfg) (c_wc cfg) _ _ P1 P2) as ((S1 & S2 & S3 & _) & _).
    split; [|split; [exact S2|exact S3]]. intros m Hm. exact (proj2 (S1 m Hm)).
  - unfold r. intros ->. exact (proj2 (proj1 (fcs_all (c_defs cfg) (c_prune cfg) (c_wc cfg) _ _ P1 P2))).
Qed.

(** prune_automorphisms=True after any history: with an accepted parameter the cache holds the chosen representatives (to which
    [prune_auto_choices_valid] of proof/C12_Sorted.v applies: valid, host node sets pairwise different, sorted, complete up to
    host node sets), size and flag are those of the unpruned search *)
Theorem history_auto st ops g1 g2 mcs choices rds kept : forallb is_read rds = true ->
  apply_choices (r_maps (find_common_subgraph (c_defs cfg) (c_prune cfg) (c_wc cfg) (project cfg g1) (project cfg g2) mcs)) choices = Some kept ->
  m_run cfg st (ops ++ MFindAuto g1 g2 mcs choices :: rds) =
  {| s_maps := kept;
     s_last := r_last (find_common_subgraph (c_defs cfg) (c_prune cfg) (c_wc cfg) (project cfg g1) (project cfg g2) mcs);
     s_flag := Some (r_pattern_is_g1 (find_common_subgraph (c_defs cfg) (c_prune cfg) (c_wc cfg) (project cfg g1) (project cfg g2) mcs)) |}.
Proof.
  intros Hr E. rewrite (history_last_search cfg st ops (MFindAuto g1 g2 mcs choices) rds eq_refl Hr).
  cbn [m_step]. rewrite E. reflexivity.
Qed.

(** mcs_mol=True after any history: with an accepted parameter the cache is that of the validated result (one combined mapping,
    reported G1 -> G2), to which [mol_choice_valid] of proof/C12_Mol.v applies *)
Theorem history_mol st ops g1 g2 choice rds r : forallb is_read rds = true ->
  find_mcs_mol_with (c_defs cfg) (c_prune cfg) (c_wc cfg) (project cfg g1) (project cfg g2) choice = Some r ->
  m_run cfg st (ops ++ MFindMol g1 g2 choice :: rds) = state_of r.
Proof.
  intros Hr E. rewrite (history_last_search cfg st ops (MFindMol g1 g2 choice) rds eq_refl Hr).
  cbn [m_step]. unfold mol_tok. rewrite E. reflexivity.
Qed.

(** ... and through the ITS facade (mcs_mol=True, component=False) it is the same call on the selected sides *)
Theorem rc_mol_is_find_mol st x sd choice ga gb : pick_sides x sd = Some (ga, gb) ->
  m_step cfg st (MRcMol x sd choice) = m_step cfg st (MFindMol ga gb choice).
Proof. intros E. cbn [m_step]. rewrite E. reflexivity. Qed.

(** the ITS facade in non-component mode is find_common_subgraph on the selected sides *)
Theorem rc_is_find st x sd mcs ga gb : pick_sides x sd = Some (ga, gb) ->
  m_step cfg st (MRc x sd mcs false) = m_step cfg st (MFind ga gb mcs).
Proof. intros E. unfold m_step, m_rc. rewrite E. simpl. reflexivity. Qed.

Theorem facade_sides st x sd mcs :
  match sd with
  | SR => m_step cfg st (MRc x sd mcs false) = m_step cfg st (MFind (rc_r1 x) (rc_r2 x) mcs)
  | SL => m_step cfg st (MRc x sd mcs false) = m_step cfg st (MFind (rc_l1 x) (rc_l2 x) mcs)
  | SOp => m_step cfg st (MRc x sd mcs false) = m_step cfg st (MFind (rc_r1 x) (rc_l2 x) mcs)
  | SIts => m_step cfg st (MRc x sd mcs false) = m_step cfg st (MFind (rc_1 x) (rc_2 x) mcs)
  | SBad => fst (m_step cfg st (MRc x sd mcs false)) = s_init
  end.
Proof. destruct sd; try (apply rc_is_find; reflexivity); reflexivity. Qed.

(** component mode: exactly one stored mapping, reported G1 -> G2, valid for the selected sides (also across components) *)
Theorem history_component_valid st ops x sd mcs ga gb rds :
  pick_sides x sd = Some (ga, gb) ->
  NoDup (node_ids ga) -> NoDup (node_ids gb) -> wfe (project cfg ga) -> wfe (project cfg gb) ->
  forallb is_read rds = true ->
  let stf := m_run cfg st (ops ++ MRc x sd mcs true :: rds) in
  exists m, m_get stf D12 = Some [m] /\ m_get stf D21 = Some [invert_mapping m] /\ m_get stf DP2H = Some [m] /\
    s_flag stf = Some true /\ s_last stf = length m /\
    common_induced nm edge_match (pr ga) (pr gb) m /\ common_induced nm edge_match (pr gb) (pr ga) (invert_mapping m).
Proof.
  intros E N1 N2 W1 W2 Hr stf. unfold stf. rewrite (history_last_search cfg st ops (MRc x sd mcs true) rds eq_refl Hr).
  unfold m_step, m_rc. rewrite E. cbn [fst].
  destruct (rc_component_valid (c_defs cfg) (c_prune cfg) (c_wc cfg) _ _ mcs (project_nodup cfg ga N1) (project_nodup cfg gb N2) W1 W2)
    as (m & t & -> & C1 & C2).
  exists m. exact (conj eq_refl (conj eq_refl (conj eq_refl (conj eq_refl (conj eq_refl (conj C1 C2)))))).
Qed.

End Histories.

(* ------------------------------------------------------------------ 5b. keyword arguments: defaults and dispatch *)
(** every omitted argument takes ITS OWN default, whatever else was given; component mode ignores mcs_mol, mcs_mol ignores mcs *)
Theorem resolve_defaults (auto : bool) :
  ((forall g1 g2 chs ch, resolve auto (CFind g1 g2 {| fk_mcs := None; fk_mol := None |} chs ch) =
                        if auto then MFindAuto g1 g2 false chs else MFind g1 g2 false) /\
  (forall g1 g2 m chs ch, resolve auto (CFind g1 g2 {| fk_mcs := m; fk_mol := Some true |} chs ch) = MFindMol g1 g2 ch) /\
  (forall g1 g2 b chs ch, resolve false (CFind g1 g2 {| fk_mcs := Some b; fk_mol := None |} chs ch) = MFind g1 g2 b) /\
  (forall x ch, resolve auto (CRc x {| rk_side := None; rk_mcs := None; rk_mol := None; rk_component := None |} ch) = MRc x SOp true true) /\
  (forall x sd m ml ch, resolve auto (CRc x {| rk_side := sd; rk_mcs := m; rk_mol := ml; rk_component := None |} ch) =
                        MRc x (dflt SOp sd) (dflt true m) true) /\
  (forall x sd m ch, resolve auto (CRc x {| rk_side := sd; rk_mcs := m; rk_mol := None; rk_component := Some false |} ch) =
                     MRc x (dflt SOp sd) (dflt true m) false) /\
  (forall x sd m ch, resolve auto (CRc x {| rk_side := sd; rk_mcs := m; rk_mol := Some true; rk_component := Some false |} ch) =
                     MRcMol x (dflt SOp sd) ch))%type.
Proof. repeat split; intros; destruct auto; reflexivity. Qed.

(* ------------------------------------------------------------------ non-vacuity *)
Module Example_state.
Local Open Scope nat_scope.
(** C(0)-C(1)(=O(2)) with a charge on C(1) that the default configuration ignores, against O(5)=C(6); keys: 0 element, 1 charge;
    values: 0 "*", 1 "C", 2 "O", 3 (+1); the second pair carries a tuple-valued order (an ITS order pair, not castable) *)
Definition gA : rgraph := LG [(0, [(0, 1)]); (1, [(0, 1); (1, 3)]); (2, [(0, 2)])]%N
                             [(0, 1, [(0%N, ENum 2)]); (1, 2, [(0%N, ENum 4)])]%N.
Definition gB : rgraph := LG [(5, [(0, 2)]); (6, [(0, 1)])]%N [(5, 6, [(0%N, ENum 4)])]%N.
Definition gT : rgraph := LG [(5, [(0, 2)]); (6, [(0, 1)])]%N [(5, 6, [(0%N, EOther 7)])]%N.
Definition args0 : ctor_args := {| a_node_attrs := None; a_node_defaults := None; a_edge_attrs := Some []; a_prune_wc := false;
                                  a_prune_auto := false; a_wildcard := 0; a_element_key := 0 |}.
Definition cfg0 : config := dummy_config.

Example ctor_defaults : mk_config args0 = Some cfg0.
Proof. reflexivity. Qed.
Example ctor_error : mk_config {| a_node_attrs := Some [0; 1]%N; a_node_defaults := Some [0%N]; a_edge_attrs := None; a_prune_wc := false;
                                 a_prune_auto := false; a_wildcard := 0; a_element_key := 0 |} = None.
Proof. reflexivity. Qed.

(** first graph larger: the stored list is G2 -> G1; the same object then answers for the swapped pair; reads in between *)
Definition hist := [MReads [D12; DBad]; MFind gA gB true; MReads [DBad; D21]; MFind gB gA true; MReads [D12]].
Example history_state : m_run cfg0 s_init hist = {| s_maps := [[(5, 2); (6, 1)]%N]; s_last := 2; s_flag := Some true |}.
Proof. vm_compute. reflexivity. Qed.
Example history_mid : m_get (m_run cfg0 s_init [MReads [D12]; MFind gA gB true]) D12 = Some [[(2, 5); (1, 6)]%N].
Proof. vm_compute. reflexivity. Qed.
Example bad_direction_before_and_after :
  m_get s_init DBad = Some [] /\ m_get (m_run cfg0 s_init [MFind gA gB true]) DBad = None.
Proof. split; vm_compute; reflexivity. Qed.
(** a tuple-valued order equals only itself: against the numeric double bond only single atoms are common *)
Example tuple_order : s_last (m_run cfg0 s_init [MFind gA gT true]) = 1 /\ s_last (m_run cfg0 s_init [MFind gT gT true]) = 2.
Proof. split; vm_compute; reflexivity. Qed.
(** the charge matters once it is configured (names [element; charge], defaults ["*"; "*"]) *)
Definition cfg2 : config := {| c_names := [0; 1]%N; c_defs := [0; 0]%N; c_enames := [0%N]; c_prune := false; c_auto := false;
                               c_wc := 0; c_ekey := 0 |}.
Example charge_configured : s_last (m_run cfg2 s_init [MFind gA gB true]) = 1.
Proof. vm_compute. reflexivity. Qed.
Example raw_valid : raw_common_induced cfg0 gA gB [(2, 5); (1, 6)]%N /\ ~ raw_common_induced cfg0 gA gB [(0, 5)]%N.
Proof.
  split.
  - apply (project_ci_iff cfg0 gA gB _ eq_refl).
    apply (proj1 (fcs_valid [0%N] false 0%N (project cfg0 gA) (project cfg0 gB) ltac:(now apply nodupb_spec) ltac:(now apply nodupb_spec)
                    true [(2, 5); (1, 6)]%N)).
    vm_compute. now left.
  - intros (_ & _ & C & _). destruct (C 0%N 5%N (or_introl eq_refl)) as (a & b & La & Lb & Hm).
    vm_compute in La, Lb. injection La as <-. injection Lb as <-. vm_compute in Hm. discriminate.
Qed.
Example failed_facade_resets :
  m_run cfg0 s_init [MFind gA gB true; MRc {| rc_1 := gA; rc_2 := gB; rc_l1 := gA; rc_r1 := gA; rc_l2 := gB; rc_r2 := gB |} SBad true true] = s_init.
Proof. vm_compute. reflexivity. Qed.
End Example_state.

(* ------------------------------------------------------------------ 6. the MTG copy as an object *)
(** the MTG copy selects its attributes the same way: [project_mtg] is [project] under another name *)
Lemma project_mtg_eq cfg g : project_mtg cfg g = project cfg g.
Proof. reflexivity. Qed.

Lemma project_edge_mtg_eq cfg a : project_edge_mtg cfg a = project_edge cfg a.
Proof. reflexivity. Qed.

Lemma mk_config_mtg_lengths a : length (c_defs (mk_config_mtg a)) = length (c_names (mk_config_mtg a)).
Proof. unfold mk_config_mtg. simpl. rewrite !firstn_length. lia. Qed.

(** zip truncation: the raw node matcher on the given lists is the raw matcher on the truncated lists *)
Lemma node_match_raw_firstn names : forall defs h p,
  node_match_raw names defs h p =
  node_match_raw (firstn (Nat.min (length names) (length defs)) names) (firstn (Nat.min (length names) (length defs)) defs) h p.
Proof.
  induction names as [|k ks IH]; intros [|d ds] h p; simpl; try reflexivity. now rewrite <- IH.
Qed.

Lemma edge_match_mtg_project cfg k h p : c_enames cfg = [k] ->
  edge_match_mtg (project_edge_mtg cfg h) (project_edge_mtg cfg p) = edge_match_mtg_raw k h p.
Proof.
  intros E. unfold project_edge_mtg, edge_match_mtg_raw. rewrite E. simpl.
  destruct (LGraph.assoc k h) as [a|], (LGraph.assoc k p) as [b|]; simpl; try reflexivity.
  - rewrite evalue_code_eqb. destruct a, b; reflexivity.
  - destruct a; reflexivity.
Qed.

Lemma t_step_search cfg st st' o : t_is_read o = false -> t_step cfg st o = t_step cfg st' o.
Proof. destruct o; simpl; [reflexivity|reflexivity|discriminate|reflexivity|reflexivity]. Qed.

(** the MTG facade forwards mcs_mol: find_rc_mapping(rc1, rc2, mcs_mol=True) is the mcs_mol search on the right side of rc1 and
    the left side of rc2 *)
Lemma t_rc_mol_is_find_mol cfg st x choice : t_step cfg st (TRcMol x choice) = t_step cfg st (TFindMol (rc_r1 x) (rc_l2 x) choice).
Proof. reflexivity. Qed.

Theorem mtg_history_last_search cfg st ops o rds : t_is_read o = false -> forallb t_is_read rds = true ->
  t_run cfg st (ops ++ o :: rds) = fst (t_step cfg t_init o) /\
  snd (t_step cfg (t_run cfg st ops) o) = snd (t_step cfg t_init o).
Proof.
  intros Ho Hr. split; [|now rewrite (t_step_search cfg _ t_init o Ho)]. revert Ho Hr.
  apply (run_last_search _ _ _ (t_step cfg) t_is_read (t_run cfg)); [reflexivity|reflexivity| |apply t_step_search].
  intros s [] H; try discriminate H. reflexivity.
Qed.

(** the property over histories of the MTG object: the first argument is always the pattern; stored mappings are valid for the
    selected attributes, in maximum mode of size last_size, none larger, all of that size returned; all-sizes mode: exactly
    the non-empty common induced mappings *)
Theorem mtg_history_valid cfg st ops g1 g2 mcs rds :
  NoDup (node_ids g1) -> NoDup (node_ids g2) -> forallb t_is_read rds = true ->
  let stf := t_run cfg st (ops ++ TFind g1 g2 mcs :: rds) in
  let G1 := project_mtg cfg g1 in let G2 := project_mtg cfg g2 in
  (forall m, In m (t_maps stf) -> common_induced (node_match (c_defs cfg)) edge_match_mtg G1 G2 m /\ (1 <= length m)%nat) /\
  (mcs = true ->
     (forall m, In m (t_maps stf) -> length m = t_last stf) /\
     (forall m, common_induced (node_match (c_defs cfg)) edge_match_mtg G1 G2 m -> (length m <= t_last stf)%nat) /\
     (forall m, common_induced (node_match (c_defs cfg)) edge_match_mtg G1 G2 m -> length m = t_last stf -> (1 <= t_last stf)%nat ->
        exists m', In m' (t_maps stf) /\ Permutation m m')) /\
  (mcs = false ->
     forall m, common_induced (node_match (c_defs cfg)) edge_match_mtg G1 G2 m -> (1 <= length m)%nat ->
        exists m', In m' (t_maps stf) /\ Permutation m m').
Proof.
  intros N1 N2 Hr stf G1 G2. unfold stf.
  rewrite (proj1 (mtg_history_last_search cfg st ops (TFind g1 g2 mcs) rds eq_refl Hr)).
  assert (P1 : NoDup (node_ids G1)) by (unfold G1; rewrite project_mtg_eq; now apply project_nodup).
  assert (P2 : NoDup (node_ids G2)) by (unfold G2; rewrite project_mtg_eq; now apply project_nodup).
  destruct (mtg_spec (c_defs cfg) G1 G2 P1 P2) as ((M1 & M2 & M3 & _) & (_ & A2)).
  simpl. fold G1 G2. split; [exact (search_sound _ _ G1 G2 mcs P1)|]. split; intros ->.
  - split; [|split]; [intros m Hm; exact (proj2 (M1 m Hm))|exact M2|exact M3].
  - exact A2.
Qed.

Module Example_mtg.
Local Open Scope nat_scope.
Import Example_state.
(** defaults shorter than names: only the first name is compared (zip truncation) *)
Definition a1 : mtg_args := {| ma_names := Some [0; 1]%N; ma_defs := Some [0%N]; ma_edge := 0%N |}.
Example ctor_truncates : c_names (mk_config_mtg a1) = [0%N] /\ c_defs (mk_config_mtg a1) = [0%N].
Proof. split; reflexivity. Qed.
Definition cm : config := mk_config_mtg {| ma_names := None; ma_defs := None; ma_edge := 0%N |}.
Example mtg_history : t_run cm t_init [TRead; TFind gB gA true; TRead; TFind gA gB true; TRead] =
                      {| t_maps := [[(1, 6); (2, 5)]%N]; t_last := 2 |}.
Proof. vm_compute. reflexivity. Qed.
(** a value float() rejects equals only itself (the defect repaired by /repo 24a0150: it matched nothing) *)
Example mtg_tuple_order : t_last (t_run cm t_init [TFind gT gT true]) = 2 /\ t_last (t_run cm t_init [TFind gA gT true]) = 1.
Proof. split; vm_compute; reflexivity. Qed.
End Example_mtg.
