(** C03 — [left_of_rcb] and [edges_closedb] of the rule prepared in the DEFAULT mode, from the template (templates whose
    atoms have the same element on both sides): the left graph of the prepared rule is the reactant side of its rule graph
    as far as matching goes, and every bond of the rule joins two of its atoms if that holds for the template.  With
    them the hypotheses of C03_its_list_instances_matcher that concern the rule are discharged from the template. *)
From Coq Require Import List NArith ZArith Bool.
From SK Require Import lib.Tok lib.LGraph model.C03_Model model.C03_Order model.C03_Reactor proof.C03_Proof proof.C03_Glue
                       proof.C03_Backward proof.C03_Skeleton proof.C03_StripCounts proof.C03_StripExact proof.C03_StripCor
                       proof.C03_ReactorSpec.
From SK Require Import proof.C03_DefaultEnd proof.C03_Capstone.
Import ListNotations.
Local Open Scope Z_scope.

Lemma Forall2_length' {A B} (R : A -> B -> Prop) l1 l2 : Forall2 R l1 l2 -> length l1 = length l2.
Proof. induction 1; simpl; congruence. Qed.

Lemma filter_map_len {A B} (f : A -> B) (p : B -> bool) (q : A -> bool) l :
  (forall x, p (f x) = q x) -> length (filter p (map f l)) = length (filter q l).
Proof. intros H. induction l as [|x r IH]; simpl; [reflexivity|]. rewrite H. destruct (q x); simpl; congruence. Qed.

Theorem default_left_of_rcb (tpl rc : its) (l r : molg) :
  nodupb (node_ids tpl) = true -> (forall k a, In (k, a) (gnodes tpl) -> a_el (iH a) = a_el (iG a)) ->
  synrule tpl true = Some (rc, l, r) -> left_of_rcb rc l = true.
Proof.
  intros Hnd0 Hel H. pose proof (nodupb_NoDup _ Hnd0) as Hnd.
  destruct (synrule_default_exact tpl rc l r Hnd0 Hel H) as (R & Memb & (KK & Erc) & (LL & El) & _ & Fc).
  unfold left_of_rcb. apply andb_true_intro. split; [apply andb_true_intro; split|].
  - apply Nat.eqb_eq. rewrite (Forall2_length' _ _ _ KK), (Forall2_length' _ _ _ LL), side0_nodes_G.
    apply filter_map_len. intros [k a]. reflexivity.
  - apply forallb_forall. intros [k a] I. unfold node_same. cbn [fst snd].
    destruct (Fc k a I) as (la & ra & Ll & _ & Hg & _). rewrite Ll.
    (* the template atom behind (k, a) and behind (k, la) *)
    destruct (Forall2_in_l _ _ _ _ KK I) as ([k0 a0] & I0 & (E1 & E2 & _)). cbn [fst snd] in *. subst k0.
    apply filter_In in I0. destruct I0 as [I0 _].
    destruct (mskel_side_node tpl iG eG l R k a0 la Hnd (side0_nodes_G tpl) (Build_mskel _ _ _ LL El) I0 Ll) as (_ & F2 & F4).
    assert (Ee : a_el (iG a) = a_el (iG a0)) by (destruct (iG a), (iG a0); inversion E2; reflexivity).
    assert (Eq : a_ch (iG a) = a_ch (iG a0)) by (destruct (iG a), (iG a0); inversion E2; reflexivity).
    rewrite F2, F4, Ee, Eq, Hg, N.eqb_refl, !Z.eqb_refl. reflexivity.
  - apply forallb_forall. intros [[u v] x] I. unfold edge_same. cbn [fst snd]. destruct (0 <? eG x) eqn:Ep; [|reflexivity].
    rewrite Erc in I. apply filter_In in I. destruct I as [I Hk]. unfold keepe in Hk. cbn [fst snd] in Hk.
    apply existsb_exists. exists (u, v, eG x). split.
    + rewrite El. apply filter_In. split.
      * rewrite side0_edges. apply in_flat_map. exists (u, v, x). split; [exact I|]. rewrite Ep. left. reflexivity.
      * unfold mkeepe. cbn [fst snd]. exact Hk.
    + cbn [fst snd]. unfold peq. rewrite !N.eqb_refl, Z.eqb_refl. reflexivity.
Qed.

Theorem default_edges_closedb (tpl rc : its) (l r : molg) :
  nodupb (node_ids tpl) = true -> (forall k a, In (k, a) (gnodes tpl) -> a_el (iH a) = a_el (iG a)) ->
  synrule tpl true = Some (rc, l, r) -> edges_closedb tpl = true -> edges_closedb rc = true.
Proof.
  intros Hnd0 Hel H Hc.
  destruct (synrule_default_pointwise tpl rc l r Hnd0 Hel H) as (R & _ & _ & Eids & _ & _ & _ & Erc & _).
  unfold edges_closedb in *. rewrite forallb_forall in Hc. apply forallb_forall. intros [[u v] x] I.
  rewrite Erc in I. apply filter_In in I. destruct I as [I Hk]. specialize (Hc _ I). cbn [fst snd] in *.
  unfold keepe in Hk. cbn [fst snd] in Hk. apply andb_prop in Hk. destruct Hk as [Hu Hv].
  apply andb_prop in Hc. destruct Hc as [Cu Cv]. apply mem_spec in Cu, Cv.
  rewrite Eids. apply andb_true_intro. split; apply mem_spec; apply filter_In; auto.
Qed.

(** well-formedness of the prepared rule from the template's *)
Lemma NoDup_nodupb' l : NoDup l -> nodupb l = true.
Proof.
  induction 1 as [|x r Hx _ IH]; [reflexivity|]. cbn [nodupb]. rewrite IH, (mem_false x r Hx). reflexivity.
Qed.
Lemma existsb_filter_false {A} (p q : A -> bool) l : existsb p l = false -> existsb p (filter q l) = false.
Proof.
  induction l as [|x r IH]; simpl; intros H; [reflexivity|]. apply orb_false_elim in H. destruct H as [H1 H2].
  destruct (q x); simpl; [rewrite H1|]; auto.
Qed.
Lemma simple_edgesb_filter {B} (q : N * N * B -> bool) (es : list (N * N * B)) :
  simple_edgesb es = true -> simple_edgesb (filter q es) = true.
Proof.
  induction es as [|[[a b] x] r IH]; [reflexivity|]. cbn [simple_edgesb filter]. intros H.
  apply andb_prop in H. destruct H as [H H3]. apply andb_prop in H. destruct H as [H1 H2].
  destruct (q (a, b, x)); [|exact (IH H3)]. cbn [simple_edgesb]. rewrite H1, (IH H3), andb_true_r. cbn [andb].
  apply negb_true_iff in H2. apply negb_true_iff. exact (existsb_filter_false _ q r H2).
Qed.
Lemma forallb_filter {A} (p q : A -> bool) l : forallb p l = true -> forallb p (filter q l) = true.
Proof.
  induction l as [|x r IH]; simpl; intros H; [reflexivity|]. apply andb_prop in H. destruct H as [H1 H2].
  destruct (q x); simpl; [rewrite H1|]; auto.
Qed.

Theorem default_wf_rcb (tpl rc : its) (l r : molg) :
  (forall k a, In (k, a) (gnodes tpl) -> a_el (iH a) = a_el (iG a)) ->
  synrule tpl true = Some (rc, l, r) -> wf_rcb tpl = true -> wf_rcb rc = true.
Proof.
  intros Hel H Hw. unfold wf_rcb in Hw. apply andb_prop in Hw. destruct Hw as [Hw W3]. apply andb_prop in Hw. destruct Hw as [W1 W2].
  destruct (synrule_default_pointwise tpl rc l r W1 Hel H) as (R & _ & _ & _ & _ & _ & Nrc & Erc & _).
  unfold wf_rcb. rewrite (NoDup_nodupb' _ Nrc), Erc, (simple_edgesb_filter _ _ W2), (forallb_filter _ _ _ W3). reflexivity.
Qed.

(** all hypotheses of C03_its_list_instances_matcher that concern the RULE, from the template, in the default mode *)
Theorem default_rule_hyps (tpl rc : its) (l r : molg) :
  (forall k a, In (k, a) (gnodes tpl) -> a_el (iH a) = a_el (iG a)) ->
  wf_rcb tpl = true -> edges_closedb tpl = true -> synrule tpl true = Some (rc, l, r) ->
  wf_rcb rc = true /\ edges_closedb rc = true /\ left_of_rcb rc l = true.
Proof.
  intros Hel Hw Hc H.
  pose proof (wf_rc_nodupb tpl Hw) as Hnd.
  split; [exact (default_wf_rcb tpl rc l r Hel H Hw)|]. split; [exact (default_edges_closedb tpl rc l r Hnd Hel H Hc)|].
  exact (default_left_of_rcb tpl rc l r Hnd Hel H).
Qed.

(** * the default mode end to end, hypotheses on the TEMPLATE, the SUBSTRATE and the MATCHER'S CONTRACT only *)
Theorem its_list_default_end_to_end inp tpl rc l r gs :
  i_rule inp = synrule tpl true -> synrule tpl true = Some (rc, l, r) ->
  (forall k a, In (k, a) (gnodes tpl) -> a_el (iH a) = a_el (iG a)) ->
  wf_rcb tpl = true -> edges_closedb tpl = true -> tpl_condition tpl ->
  wf_hostb (i_host inp) = true -> forallb (call_okm (i_host inp) l) (i_calls inp) = true ->
  spec_its inp = Some gs ->
  forall g, In g gs ->
    instance_of (i_host inp) rc g /\
    (forall e, elem_count e (fst (its_decompose g)) = elem_count e (snd (its_decompose g))) /\
    total_charge (fst (its_decompose g)) = total_charge (snd (its_decompose g)).
Proof.
  intros Ei Es Hel Hw Hc Hcond Hwh Hcalls Hits g Ig. rewrite Es in Ei.
  destruct (default_rule_hyps tpl rc l r Hel Hw Hc Es) as (R1 & R2 & R3).
  assert (Hm : matcher_hyps_okb (i_rule inp) (i_host inp) (i_calls inp) = true).
  { rewrite Ei. unfold matcher_hyps_okb. rewrite Hwh, R1, R2, R3, Hcalls. reflexivity. }
  pose proof (its_list_sound_matcher inp rc l r gs Ei Hm Hits g Ig) as Hi. split; [exact Hi|].
  destruct Hi as (hb & m & T & tbl & _ & _ & _ & _ & _ & _ & _ & _ & _ & A4 & _).
  pose proof (conj (wf_rc_nodupb tpl Hw) (wf_rc_simple tpl Hw)) as Hnd.
  exact (A4 (default_rule_balanced tpl rc l r (proj1 Hnd) Hel (proj2 Hnd) Es Hcond)).
Qed.
