(** C05 — the boolean [rewriting_okb] that the run function evaluates on every writing implies the premises
    of the set-level theorems: injective renumberings and [same_graph]. Stdlib lists. *)
From Coq Require Import List ZArith Bool.
From SK Require Import lib.LGraph.
From SK Require Import model.C03_Model proof.C03_Proof.
From SK Require Import model.C05_Model proof.C05_Proof proof.C05_Order proof.C05_Set.
Import ListNotations.



Lemma label_none_notin {A B} (g : lgraph A B) u : ~ In u (node_ids g) -> label g u = None.
Proof. unfold label, node_ids. apply assoc_none_notin. Qed.

Lemma adj_closed {A B} (g : lgraph A B) u v x : closed_edgesb g = true -> LGraph.adj g u v = Some x ->
  In u (node_ids g) /\ In v (node_ids g).
Proof.
  unfold closed_edgesb. intros Hc Ha. rewrite forallb_forall in Hc.
  unfold LGraph.adj in Ha. destruct (find_edge_in _ _ _ _ Ha) as (p & q & I & Hp).
  specialize (Hc _ I). simpl in Hc. apply andb_prop in Hc. destruct Hc as [Hp1 Hq1].
  apply LGraph.mem_spec in Hp1, Hq1. unfold peq in Hp. apply orb_prop in Hp.
  destruct Hp as [Hp|Hp]; apply andb_prop in Hp; destruct Hp as [E1 E2]; apply N.eqb_eq in E1, E2; subst; tauto.
Qed.

Lemma opt_eqb_eq {A} (eqb : A -> A -> bool) (Heq : forall a b, eqb a b = true -> a = b) (x y : option A) :
  opt_eqb eqb x y = true -> x = y.
Proof. destruct x, y; simpl; try discriminate; [intros H; f_equal; apply Heq; exact H | reflexivity]. Qed.

Lemma same_graphb_ok {A B} (aeq : A -> A -> bool) (beq : B -> B -> bool)
      (Ha : forall a b, aeq a b = true -> a = b) (Hb : forall a b, beq a b = true -> a = b) (g g' : lgraph A B) :
  same_graphb aeq beq g g' = true -> same_graph g g'.
Proof.
  unfold same_graphb. intros H.
  repeat (apply andb_prop in H; let H' := fresh "C" in destruct H as [H H']).
  rewrite forallb_forall in C, C0, C3, C4.
  assert (Hsub : forall u, In u (node_ids g) -> In u (node_ids g')) by (intros u I; apply LGraph.mem_spec; apply C4; exact I).
  assert (Hsub' : forall u, In u (node_ids g') -> In u (node_ids g)) by (intros u I; apply LGraph.mem_spec; apply C3; exact I).
  split; [|split; [|split; [|split]]].
  - intros u. destruct (in_dec N.eq_dec u (node_ids g)) as [I|NI].
    + apply (opt_eqb_eq aeq Ha). apply C0. exact I.
    + rewrite (label_none_notin g u NI), (label_none_notin g' u); [reflexivity|]. intros I. apply NI. apply Hsub'. exact I.
  - intros u v.
    destruct (in_dec N.eq_dec u (node_ids g)) as [Iu|NIu]; [destruct (in_dec N.eq_dec v (node_ids g)) as [Iv|NIv]|].
    + apply (opt_eqb_eq beq Hb). specialize (C u Iu). rewrite forallb_forall in C. apply C. exact Iv.
    + destruct (LGraph.adj g u v) as [x|] eqn:E; [exfalso; apply NIv; exact (proj2 (adj_closed g u v x C2 E))|].
      destruct (LGraph.adj g' u v) as [x|] eqn:E'; [exfalso; apply NIv; apply Hsub'; exact (proj2 (adj_closed g' u v x C1 E'))|reflexivity].
    + destruct (LGraph.adj g u v) as [x|] eqn:E; [exfalso; apply NIu; exact (proj1 (adj_closed g u v x C2 E))|].
      destruct (LGraph.adj g' u v) as [x|] eqn:E'; [exfalso; apply NIu; apply Hsub'; exact (proj1 (adj_closed g' u v x C1 E'))|reflexivity].
  - intros u. split; [apply Hsub | apply Hsub'].
  - apply nodupb_NoDup. exact H.
  - apply nodupb_NoDup. exact C5.
Qed.

Lemma same_hostb_ok (g g' : hostg) : same_graphb nattr_eqb Z.eqb g g' = true -> same_graph g g'.
Proof. apply same_graphb_ok; [exact nattr_eqb_eq | intros a b; apply Z.eqb_eq]. Qed.
Lemma same_itsb_ok (g g' : its) : same_graphb inode_eqb iedge_eqb g g' = true -> same_graph g g'.
Proof. apply same_graphb_ok; [exact inode_eqb_eq | exact iedge_eqb_eq]. Qed.

Lemma permb_inj (f : list (N * N)) : permb f = true -> inj (apply_map f).
Proof.
  unfold permb, injb. intros H. apply andb_prop in H. destruct H as [H Himg]. apply andb_prop in H. destruct H as [Hf Hs].
  apply nodupb_NoDup in Hf, Hs. rewrite forallb_forall in Himg.
  assert (Hin : forall u v, In (u, v) f -> apply_map f u = v)
    by (intros u v I; unfold apply_map; rewrite (assoc_nodup_in u f v Hf I); reflexivity).
  assert (Hout : forall u, ~ In u (map fst f) -> apply_map f u = u)
    by (intros u NI; unfold apply_map; rewrite (assoc_none_notin f u NI); reflexivity).
  assert (Hdom : forall u, In u (map fst f) -> exists v, In (u, v) f).
  { intros u I. apply in_map_iff in I. destruct I as ([u' v] & E & I). simpl in E. subst. eauto. }
  assert (Himg' : forall u v, In (u, v) f -> In v (map fst f)).
  { intros u v I. apply LGraph.mem_spec. apply Himg. change v with (snd (u, v)). apply in_map. exact I. }
  intros a b E.
  destruct (in_dec N.eq_dec a (map fst f)) as [Ia|NIa]; destruct (in_dec N.eq_dec b (map fst f)) as [Ib|NIb].
  - destruct (Hdom a Ia) as (va & Ha). destruct (Hdom b Ib) as (vb & Hb).
    rewrite (Hin a va Ha), (Hin b vb Hb) in E. subst vb. exact (nodup_snd_inj f a b va Hs Ha Hb).
  - exfalso. destruct (Hdom a Ia) as (va & Ha). rewrite (Hin a va Ha), (Hout b NIb) in E. rewrite <- E in NIb. apply NIb. exact (Himg' a va Ha).
  - exfalso. destruct (Hdom b Ib) as (vb & Hb). rewrite (Hout a NIa), (Hin b vb Hb) in E. rewrite E in NIa. apply NIa. exact (Himg' b vb Hb).
  - rewrite (Hout a NIa), (Hout b NIb) in E. exact E.
Qed.

(** what the run function checks on every writing *)
Lemma rewriting_okb_ok (host0 host : hostg) (tpl0 tpl : its) (pi sg : list (N * N)) :
  rewriting_okb host0 tpl0 (host, tpl, pi, sg) = true ->
  inj (apply_map pi) /\ inj (apply_map sg) /\
  same_graph (relabel (apply_map pi) host0) host /\ same_graph (relabel (apply_map sg) tpl0) tpl /\
  simple_edgesb (gedges tpl0) = true /\ simple_edgesb (gedges tpl) = true.
Proof.
  unfold rewriting_okb. intros H.
  apply andb_prop in H. destruct H as [H Hw2]. apply andb_prop in H. destruct H as [H Hw1].
  apply andb_prop in H. destruct H as [H Ht]. apply andb_prop in H. destruct H as [H Hh]. apply andb_prop in H. destruct H as [Hp Hs].
  split; [apply permb_inj; exact Hp|]. split; [apply permb_inj; exact Hs|]. split.
  - exact (same_hostb_ok _ _ Hh).
  - split; [exact (same_itsb_ok _ _ Ht)|]. split; assumption.
Qed.

