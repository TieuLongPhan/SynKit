(** C03 — _explicit_h for EVERY visiting order of a hydrogen-transfer group (model/C03_Order.v).

    The pairing of donors with recipients inside one group depends on the order in which the atoms of the group are
    visited (a Python set: CPython's hash-table order, not the sorted order).  Accounting, shape, wiring, usage and
    crash condition are proved in C03_ExplicitH / ExplicitShape / Wiring / WiringCount / ExplicitTotal / Expand for
    [explicit_h_ord ord] with [ord] any function that returns a duplicate-free rearrangement of its argument;
    [explicit_h] is the instance [ord = sort_N].  Here: two such orders use every atom equally often, and [ord_of tbl]
    (recorded orders, the function the correspondence runs) is such an order. *)
From Coq Require Import List NArith ZArith Bool.
From SK Require Import lib.Tok lib.LGraph model.C03_Model model.C03_Order proof.C03_Proof proof.C03_WiringCount.
Import ListNotations.
Local Open Scope Z_scope.

Section AnyOrder.
  Variable ord : list N -> list N.
  Hypothesis ord_in : forall l x, In x (ord l) <-> In x l.
  Hypothesis ord_nodup : forall l, NoDup l -> NoDup (ord l).

  (** the same atoms are used, the same number of times, as in the sorted order: only the PARTNERS may differ *)
  Theorem explicit_h_ord_same_usage T T' ms T0 ms0 :
    explicit_h_ord ord T = Some (T', ms) -> explicit_h T = Some (T0, ms0) ->
    (forall x, occurrences x (map fst ms) = occurrences x (map fst ms0)) /\
    (pairs_exactb T = true -> forall x, occurrences x (map snd ms) = occurrences x (map snd ms0)).
  Proof.
    intros H H0. split.
    - intros x. rewrite (proj1 (explicit_h_ord_usage ord ord_in ord_nodup T T' ms H x)), (proj1 (explicit_h_usage T T0 ms0 H0 x)). reflexivity.
    - intros Hex x. rewrite (explicit_h_ord_usage_exact ord ord_in ord_nodup T T' ms H Hex x), (explicit_h_usage_exact T T0 ms0 H0 Hex x). reflexivity.
  Qed.
End AnyOrder.

(** * the order function the correspondence runs satisfies the two hypotheses *)
Lemma same_setb_spec c o : same_setb c o = true -> NoDup o /\ forall x, In x o <-> In x c.
Proof.
  unfold same_setb. intros H. apply andb_prop in H. destruct H as [H H4]. apply andb_prop in H. destruct H as [H H3].
  apply andb_prop in H. destruct H as [H1 _]. split; [apply nodupb_NoDup; exact H1|].
  rewrite forallb_forall in H3, H4. intros x. split; intros I.
  - apply mem_spec. apply H3. exact I.
  - apply mem_spec. apply H4. exact I.
Qed.

Lemma ord_of_in tbl l x : In x (ord_of tbl l) <-> In x l.
Proof.
  unfold ord_of. destruct (find (same_setb l) tbl) as [o|] eqn:E.
  - apply find_some in E. destruct E as [_ E]. exact (proj2 (same_setb_spec l o E) x).
  - apply in_sort_N_iff.
Qed.
Lemma ord_of_nodup tbl l : NoDup l -> NoDup (ord_of tbl l).
Proof.
  unfold ord_of. destruct (find (same_setb l) tbl) as [o|] eqn:E.
  - apply find_some in E. destruct E as [_ E]. intros _. exact (proj1 (same_setb_spec l o E)).
  - apply nodup_sort_N.
Qed.
