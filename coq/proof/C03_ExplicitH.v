(** C03 — the hydrogen bookkeeping of SynReactor._explicit_h (second stage, after gluing): every migration
    (donor, recipient) becomes one new explicit H atom; the donor's reactant-side count and the recipient's
    product-side count drop by one.  Proved: donors and recipients are atoms of the graph, both sides keep every
    element count (hydrogen = explicit atoms + implicit counts) and the total charge, no bond between old atoms is
    touched, old atoms keep everything but their hydrogen counts.  The statements are about [explicit_h_ord ord]
    (model/C03_Order.v) for any visiting order [ord] of a hydrogen-transfer group that keeps the atoms of the group;
    [explicit_h] is the instance [ord = sort_N]. *)
From Coq Require Import List NArith ZArith Bool Lia.
From SK Require Import lib.Tok lib.LGraph model.C03_Model model.C03_Order proof.C03_Proof proof.C03_Glue.
Import ListNotations.
Local Open Scope Z_scope.

(** * the two folds of [explicit_h], named *)
Definition addH_step (st : its * N) (sd : N * N) : its * N :=
  let '(J, h) := st in
  (LG (gnodes J ++ [(h, H_inode)]) (gedges J ++ [(fst sd, h, (2, 0, 2)); (h, snd sd, (0, 2, -2))]), N.succ h).
Definition dec_step (J : its) (sd : N * N) : its := upd_node (upd_node J (fst sd) dec_G) (snd sd) dec_H.

Lemma apply_migrations_eq T ms :
  apply_migrations T ms =
  let '(T1, _) := fold_left addH_step ms (T, N.succ (max_id T)) in fold_left dec_step ms T1.
Proof. reflexivity. Qed.

Theorem explicit_h_ord_sort T : explicit_h_ord sort_N T = explicit_h T.
Proof.
  unfold explicit_h_ord, explicit_h. change (all_migrations_ord sort_N T) with (all_migrations T).
  destruct (all_migrations T) as [ms|]; [|reflexivity].
  unfold apply_migrations. destruct (fold_left _ ms (T, N.succ (max_id T))) as [T1 h1]. reflexivity.
Qed.

(** * generic list facts *)
Lemma sumL_app {V} (w : V -> Z) (l1 l2 : list (N * V)) : sumL w (l1 ++ l2) = sumL w l1 + sumL w l2.
Proof. induction l1 as [|[k v] r IH]; simpl; [reflexivity|]. rewrite IH. lia. Qed.
Lemma assoc_app_some {V} (l1 l2 : list (N * V)) k v : assoc k l1 = Some v -> assoc k (l1 ++ l2) = Some v.
Proof. induction l1 as [|[k' v'] r IH]; simpl; [discriminate|]. destruct (N.eqb k k'); auto. Qed.

Lemma nodup_snoc (l : list N) h : NoDup l -> ~ In h l -> NoDup (l ++ [h]).
Proof.
  induction l as [|x r IH]; simpl; intros Hnd Hn; [repeat constructor; intros []|].
  inversion Hnd as [|? ? H1 H2]; subst. constructor.
  - intros I. apply in_app_or in I. destruct I as [I|[<-|[]]]; tauto.
  - apply IH; tauto.
Qed.

Lemma fold_max_ge l : forall acc, (acc <= fold_left N.max l acc)%N /\ forall n, In n l -> (n <= fold_left N.max l acc)%N.
Proof.
  induction l as [|x r IH]; simpl; intros acc; [split; [lia|intros n []]|].
  destruct (IH (N.max acc x)) as [H1 H2]. split; [lia|]. intros n [<-|I]; [lia|auto].
Qed.
Lemma max_id_ge (T : its) n : In n (node_ids T) -> (n <= max_id T)%N.
Proof. unfold max_id. apply (proj2 (fold_max_ge (node_ids T) 0%N)). Qed.

(** * first fold: new hydrogen atoms with fresh ids *)
Lemma addH_fold ms : forall J h J' h', fold_left addH_step ms (J, h) = (J', h') ->
  NoDup (node_ids J) -> (forall n, In n (node_ids J) -> (n < h)%N) ->
  NoDup (node_ids J') /\
  (forall w, sumZ w J' = sumZ w J + Z.of_nat (length ms) * w H_inode) /\
  (forall n a, label J n = Some a -> label J' n = Some a) /\
  (forall a b, (a < h)%N -> (b < h)%N -> adj J' a b = adj J a b) /\
  length (gnodes J') = (length (gnodes J) + length ms)%nat.
Proof.
  induction ms as [|sd r IH]; intros J h J' h' H Hnd Hlt.
  - simpl in H. inversion H; subst. repeat split; auto. intros w. simpl. lia.
  - cbn [fold_left] in H. unfold addH_step at 2 in H.
    set (J1 := LG (gnodes J ++ [(h, H_inode)]) (gedges J ++ [(fst sd, h, (2, 0, 2)); (h, snd sd, (0, 2, -2))])) in H.
    assert (Hids : node_ids J1 = node_ids J ++ [h]) by (unfold node_ids, J1; simpl; rewrite map_app; reflexivity).
    destruct (IH J1 (N.succ h) J' h' H) as (A1 & A2 & A3 & A4 & A5).
    + rewrite Hids. apply nodup_snoc; [exact Hnd|]. intros I. specialize (Hlt _ I). lia.
    + intros n I. rewrite Hids in I. apply in_app_or in I. destruct I as [I|[<-|[]]]; [specialize (Hlt _ I)|]; lia.
    + split; [exact A1|]. split; [|split; [|split]].
      * intros w. rewrite A2. unfold sumZ, J1; cbn [gnodes]. rewrite sumL_app. cbn [sumL fold_right snd].
        change (length (sd :: r)) with (S (length r)). rewrite Nat2Z.inj_succ, Z.mul_succ_l. lia.
      * intros n a Hl. apply A3. unfold label, J1; simpl. apply assoc_app_some. exact Hl.
      * intros a b Ha Hb. rewrite A4 by lia. unfold adj, J1; simpl. rewrite find_edge_app.
        destruct (find_edge a b (gedges J)); [reflexivity|]. simpl.
        destruct (N.eqb_spec h a); [lia|]. destruct (N.eqb_spec h b); [lia|].
        rewrite !andb_false_r, !andb_false_l. simpl. reflexivity.
      * rewrite A5. unfold J1; simpl. rewrite app_length. simpl. lia.
Qed.

(** * second fold: the counts drop *)
Lemma dec_fold_ids ms : forall J, node_ids (fold_left dec_step ms J) = node_ids J.
Proof. induction ms as [|sd r IH]; intros J; simpl; [reflexivity|]. rewrite IH. unfold dec_step. rewrite !ids_upd. reflexivity. Qed.
Lemma dec_fold_edges ms : forall J, gedges (fold_left dec_step ms J) = gedges J.
Proof. induction ms as [|sd r IH]; intros J; simpl; [reflexivity|]. rewrite IH. reflexivity. Qed.
Lemma dec_fold_len ms : forall J, length (gnodes (fold_left dec_step ms J)) = length (gnodes J).
Proof.
  induction ms as [|sd r IH]; intros J; simpl; [reflexivity|]. rewrite IH. unfold dec_step, upd_node; simpl. rewrite !map_length. reflexivity.
Qed.

Lemma dec_step_has J sd n : has_node J n = true -> has_node (dec_step J sd) n = true.
Proof.
  rewrite !has_node_label. intros [a Ha]. unfold dec_step. rewrite !label_upd, Ha.
  destruct (N.eqb n (fst sd)), (N.eqb n (snd sd)); simpl; eauto.
Qed.

Lemma dec_fold_sum w cG cH : (forall a, w (dec_G a) = w a - cG) -> (forall a, w (dec_H a) = w a - cH) ->
  forall ms J, NoDup (node_ids J) ->
  (forall sd, In sd ms -> has_node J (fst sd) = true /\ has_node J (snd sd) = true) ->
  sumZ w (fold_left dec_step ms J) = sumZ w J - Z.of_nat (length ms) * (cG + cH).
Proof.
  intros HG HH. induction ms as [|sd r IH]; intros J Hnd Hall; [simpl; lia|].
  cbn [fold_left]. rewrite IH.
  - destruct (Hall sd (or_introl eq_refl)) as [H1 H2].
    apply has_node_label in H1. destruct H1 as [a Ha].
    assert (H2' : has_node (upd_node J (fst sd) dec_G) (snd sd) = true).
    { apply has_node_label. apply has_node_label in H2. destruct H2 as [b Hb]. rewrite label_upd, Hb.
      destruct (N.eqb (snd sd) (fst sd)); simpl; eauto. }
    apply has_node_label in H2'. destruct H2' as [b Hb].
    unfold dec_step. rewrite (sumZ_upd w _ (snd sd) dec_H b); [|rewrite ids_upd; exact Hnd|exact Hb].
    rewrite (sumZ_upd w J (fst sd) dec_G a Hnd Ha). rewrite HG, HH.
    change (length (sd :: r)) with (S (length r)). lia.
  - unfold dec_step. rewrite !ids_upd. exact Hnd.
  - intros sd' I. destruct (Hall sd' (or_intror I)) as [H1 H2]. split; apply dec_step_has; assumption.
Qed.

Definition same_but_hc (a a' : inode) : Prop :=
  set_hc (iG a') 0 = set_hc (iG a) 0 /\ set_hc (iH a') 0 = set_hc (iH a) 0 /\ i_hc a' = i_hc a /\ i_hp a' = i_hp a.
Lemma same_but_hc_refl a : same_but_hc a a.
Proof. repeat split. Qed.
Lemma same_but_hc_trans a b c : same_but_hc a b -> same_but_hc b c -> same_but_hc a c.
Proof. unfold same_but_hc. intros (A1 & A2 & A3 & A4) (B1 & B2 & B3 & B4). repeat split; congruence. Qed.
Lemma dec_fold_label ms : forall J n a, label J n = Some a ->
  exists a', label (fold_left dec_step ms J) n = Some a' /\ same_but_hc a a'.
Proof.
  induction ms as [|sd r IH]; intros J n a Ha; [exists a; split; [exact Ha|apply same_but_hc_refl]|].
  cbn [fold_left].
  assert (exists a1, label (dec_step J sd) n = Some a1 /\ same_but_hc a a1) as (a1 & H1 & S1).
  { unfold dec_step. rewrite !label_upd, Ha.
    destruct (N.eqb n (fst sd)), (N.eqb n (snd sd)); simpl; eexists; (split; [reflexivity|]); repeat split. }
  destruct (IH _ n a1 H1) as (a' & H' & S'). exists a'. split; [exact H'|]. eapply same_but_hc_trans; eauto.
Qed.

(** * donors and recipients are atoms of the graph *)
Lemma take_recip_spec recips : forall x recips', take_recip recips = Some (x, recips') ->
  In x (map fst recips) /\ map fst recips' = map fst recips.
Proof.
  induction recips as [|[r cap] rest IH]; simpl; intros x recips' H; [discriminate|].
  destruct (0 <? cap).
  - inversion H; subst. simpl. auto.
  - destruct (take_recip rest) as [[x' rest']|]; [|discriminate]. inversion H; subst.
    destruct (IH x rest' eq_refl) as [I E]. simpl. rewrite E. auto.
Qed.

Lemma donate_spec d k : forall recips acc recips' acc', donate d k recips acc = Some (recips', acc') ->
  map fst recips' = map fst recips /\
  forall sd, In sd acc' -> In sd acc \/ (fst sd = d /\ In (snd sd) (map fst recips)).
Proof.
  induction k as [|k IH]; simpl; intros recips acc recips' acc' H.
  - inversion H; subst. auto.
  - destruct (take_recip recips) as [[r recips1]|] eqn:E; [|discriminate].
    destruct (take_recip_spec recips r recips1 E) as [I Em].
    destruct (IH _ _ _ _ H) as [E1 A]. split; [congruence|].
    intros sd Isd. destruct (A sd Isd) as [I1|[I1 I2]].
    + apply in_app_or in I1. destruct I1 as [I1|[<-|[]]]; auto.
    + right. split; [exact I1|]. rewrite <- Em. exact I2.
Qed.

Definition donor_step (dl : N -> Z) (st : option (list (N * Z) * list (N * N))) (d : N) :=
  match st with
  | Some (rs, acc) => donate d (Z.to_nat (dl d)) rs acc
  | None => None
  end.
Lemma donor_fold_none dl ds : fold_left (donor_step dl) ds None = None.
Proof. induction ds; simpl; auto. Qed.
Lemma donor_fold_spec dl ds : forall recips acc recips' acc',
  fold_left (donor_step dl) ds (Some (recips, acc)) = Some (recips', acc') ->
  map fst recips' = map fst recips /\
  forall sd, In sd acc' -> In sd acc \/ (In (fst sd) ds /\ In (snd sd) (map fst recips)).
Proof.
  induction ds as [|d r IH]; cbn [fold_left]; intros recips acc recips' acc' H.
  - inversion H; subst. auto.
  - unfold donor_step at 2 in H. destruct (donate d (Z.to_nat (dl d)) recips acc) as [[rs1 acc1]|] eqn:E;
      [|rewrite donor_fold_none in H; discriminate].
    destruct (donate_spec d _ _ _ _ _ E) as [E1 A1]. destruct (IH _ _ _ _ H) as [E2 A2].
    split; [congruence|]. intros sd I. destruct (A2 sd I) as [I1|[I1 I2]].
    + destruct (A1 sd I1) as [I3|[I3 I4]]; [auto|]. right. split; [left; auto|exact I4].
    + right. split; [right; exact I1|]. rewrite <- E1. exact I2.
Qed.


Lemma migrations_of_unfold T comp :
  migrations_of T comp =
  match fold_left (donor_step (dl_of T)) (filter (fun n => 0 <? dl_of T n) comp)
                  (Some (map (fun n => (n, - dl_of T n)) (filter (fun n => dl_of T n <? 0) comp), [])) with
  | Some (_, acc) => Some acc
  | None => None
  end.
Proof. reflexivity. Qed.

(** the migrations of one component stay inside it, donor with a surplus, recipient with a deficit *)
Lemma migrations_of_in T comp ms : migrations_of T comp = Some ms ->
  forall sd, In sd ms -> In (fst sd) comp /\ In (snd sd) comp /\ 0 < dl_of T (fst sd) /\ dl_of T (snd sd) < 0.
Proof.
  rewrite migrations_of_unfold. destruct (fold_left _ _ _) as [[rs acc]|] eqn:E; [|discriminate]. intros [= <-] sd I.
  destruct (donor_fold_spec _ _ _ _ _ _ E) as [_ A]. destruct (A sd I) as [[]|[I1 I2]].
  rewrite map_map in I2. simpl in I2. rewrite map_id in I2.
  apply filter_In in I1, I2. rewrite Z.ltb_lt in I1, I2. tauto.
Qed.

Lemma dl_has T n : dl_of T n <> 0 -> has_node T n = true.
Proof. unfold dl_of, has_node. destruct (label T n); [reflexivity|congruence]. Qed.

Lemma set_hc_set_hc t x y : set_hc (set_hc t x) y = set_hc t y.
Proof. reflexivity. Qed.

Section AnyOrder.
  Variable ord : list N -> list N.
  Hypothesis ord_in : forall l x, In x (ord l) <-> In x l.

  Lemma comp_foldo_none T cs : fold_left (comp_step_ord ord T) cs None = None.
  Proof. induction cs; simpl; auto. Qed.

  Lemma explicit_h_ord_unfold T T' ms : explicit_h_ord ord T = Some (T', ms) ->
    all_migrations_ord ord T = Some ms /\
    exists T1 h1, fold_left addH_step ms (T, N.succ (max_id T)) = (T1, h1) /\ T' = fold_left dec_step ms T1.
  Proof.
    unfold explicit_h_ord. destruct (all_migrations_ord ord T) as [l|]; [|discriminate].
    rewrite apply_migrations_eq.
    destruct (fold_left addH_step l (T, N.succ (max_id T))) as [T1 h1] eqn:E.
    intros H. inversion H; subst. split; [reflexivity|]. exists T1, h1. split; [exact E|reflexivity].
  Qed.

  (** every migration stays inside one component *)
  Lemma comp_foldo_in T cs : forall acc res, fold_left (comp_step_ord ord T) cs (Some acc) = Some res ->
    forall sd, In sd res -> In sd acc \/
      exists comp, In comp cs /\ In (fst sd) comp /\ In (snd sd) comp /\ 0 < dl_of T (fst sd) /\ dl_of T (snd sd) < 0.
  Proof.
    induction cs as [|c r IH]; cbn [fold_left]; intros acc res H sd I.
    - inversion H; subst. auto.
    - unfold comp_step_ord at 2 in H. destruct (migrations_of T (ord c)) as [ms|] eqn:E; [|rewrite comp_foldo_none in H; discriminate].
      destruct (IH _ _ H sd I) as [I1|(comp & I1 & R)]; [|right; exists comp; split; [right; exact I1|exact R]].
      apply in_app_or in I1. destruct I1 as [I1|I1]; [auto|]. right. exists c. split; [left; reflexivity|].
      destruct (migrations_of_in T _ ms E sd I1) as (A & B & C & D).
      split; [apply (proj1 (ord_in c _)); exact A|]. split; [apply (proj1 (ord_in c _)); exact B|auto].
  Qed.

  Lemma migrations_are_atoms_ord T ms : all_migrations_ord ord T = Some ms ->
    forall sd, In sd ms -> has_node T (fst sd) = true /\ has_node T (snd sd) = true.
  Proof.
    unfold all_migrations_ord. intros H sd I.
    destruct (comp_foldo_in T _ _ _ H sd I) as [[]|(c & _ & _ & _ & H1 & H2)]. split; apply dl_has; lia.
  Qed.

  (** * the accounting theorem *)
  Theorem explicit_h_ord_accounting T T' ms : NoDup (node_ids T) -> explicit_h_ord ord T = Some (T', ms) ->
    (forall sd, In sd ms -> has_node T (fst sd) = true /\ has_node T (snd sd) = true) /\
    (forall e, elem_count e (fst (its_decompose T')) = elem_count e (fst (its_decompose T)) /\
               elem_count e (snd (its_decompose T')) = elem_count e (snd (its_decompose T))) /\
    (total_charge (fst (its_decompose T')) = total_charge (fst (its_decompose T)) /\
     total_charge (snd (its_decompose T')) = total_charge (snd (its_decompose T))) /\
    (forall a b, In a (node_ids T) -> In b (node_ids T) -> adj T' a b = adj T a b) /\
    (forall n a, label T n = Some a -> exists a', label T' n = Some a' /\ same_but_hc a a') /\
    length (gnodes T') = (length (gnodes T) + length ms)%nat.
  Proof.
    intros Hnd H. destruct (explicit_h_ord_unfold T T' ms H) as (Hm & T1 & h1 & E1 & ->).
    pose proof (migrations_are_atoms_ord T ms Hm) as Hat.
    destruct (addH_fold ms T (N.succ (max_id T)) T1 h1 E1 Hnd) as (A1 & A2 & A3 & A4 & A5).
    { intros n I. pose proof (max_id_ge T n I). lia. }
    assert (Hat1 : forall sd, In sd ms -> has_node T1 (fst sd) = true /\ has_node T1 (snd sd) = true).
    { intros sd I. destruct (Hat sd I) as [H1 H2]. apply has_node_label in H1, H2. destruct H1 as [a Ha], H2 as [b Hb].
      split; apply has_node_label; eauto. }
    assert (SUM : forall w cG cH, (forall a, w (dec_G a) = w a - cG) -> (forall a, w (dec_H a) = w a - cH) ->
                  sumZ w (fold_left dec_step ms T1) = sumZ w T + Z.of_nat (length ms) * (w H_inode - cG - cH)).
    { intros w cG cH HG HH. rewrite (dec_fold_sum w cG cH HG HH ms T1 A1 Hat1), A2. lia. }
    split; [exact Hat|]. split; [|split; [|split; [|split]]].
    - intros e. unfold elem_count, its_decompose; cbn [fst snd]. rewrite !count_el_dec, !total_hc_dec.
      rewrite (SUM (fun a => if N.eqb (a_el (iG a)) e then 1 else 0) 0 0) by (intros; simpl; lia).
      rewrite (SUM (fun a => if N.eqb (a_el (iH a)) e then 1 else 0) 0 0) by (intros; simpl; lia).
      rewrite (SUM (fun a => a_hc (iG a)) 1 0) by (intros; simpl; lia).
      rewrite (SUM (fun a => a_hc (iH a)) 0 1) by (intros; simpl; lia).
      cbn [H_inode iG iH a_el a_hc]. destruct (N.eqb_spec e EL_H) as [->|Hne].
      + rewrite N.eqb_refl. lia.
      + destruct (N.eqb_spec EL_H e); [congruence|]. lia.
    - unfold its_decompose; cbn [fst snd]. rewrite !total_charge_dec.
      rewrite (SUM (fun a => a_ch (iG a)) 0 0) by (intros; simpl; lia).
      rewrite (SUM (fun a => a_ch (iH a)) 0 0) by (intros; simpl; lia).
      cbn [H_inode iG iH a_ch]. lia.
    - intros a b Ia Ib. unfold adj. rewrite dec_fold_edges. apply A4.
      + pose proof (max_id_ge T a Ia). lia.
      + pose proof (max_id_ge T b Ib). lia.
    - intros n a Ha. apply dec_fold_label. apply A3. exact Ha.
    - rewrite dec_fold_len. exact A5.
  Qed.
End AnyOrder.

(** * [explicit_h]: the instance [ord = sort_N] *)
Lemma explicit_h_unfold T T' ms : explicit_h T = Some (T', ms) ->
  all_migrations T = Some ms /\
  exists T1 h1, fold_left addH_step ms (T, N.succ (max_id T)) = (T1, h1) /\ T' = fold_left dec_step ms T1.
Proof. rewrite <- explicit_h_ord_sort. apply explicit_h_ord_unfold. Qed.

Lemma migrations_are_atoms T ms : all_migrations T = Some ms ->
  forall sd, In sd ms -> has_node T (fst sd) = true /\ has_node T (snd sd) = true.
Proof. exact (migrations_are_atoms_ord sort_N (fun l x => in_sort_N_iff x l) T ms). Qed.

Theorem explicit_h_accounting T T' ms : NoDup (node_ids T) -> explicit_h T = Some (T', ms) ->
  (forall sd, In sd ms -> has_node T (fst sd) = true /\ has_node T (snd sd) = true) /\
  (forall e, elem_count e (fst (its_decompose T')) = elem_count e (fst (its_decompose T)) /\
             elem_count e (snd (its_decompose T')) = elem_count e (snd (its_decompose T))) /\
  (total_charge (fst (its_decompose T')) = total_charge (fst (its_decompose T)) /\
   total_charge (snd (its_decompose T')) = total_charge (snd (its_decompose T))) /\
  (forall a b, In a (node_ids T) -> In b (node_ids T) -> adj T' a b = adj T a b) /\
  (forall n a, label T n = Some a -> exists a', label T' n = Some a' /\ same_but_hc a a') /\
  length (gnodes T') = (length (gnodes T) + length ms)%nat.
Proof. rewrite <- explicit_h_ord_sort. apply explicit_h_ord_accounting. exact (fun l x => in_sort_N_iff x l). Qed.
