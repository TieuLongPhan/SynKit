(** C11 (round 5) — the orbits REPORTED for a disconnected graph (orbits of the components, component swaps excluded)
    are never separated by the estimate either: an automorphism of a component extends, by the identity elsewhere, to
    an automorphism of the whole graph, so a per-component orbit lies inside an orbit of the full group, which the WL
    colours never split (C11_wl_never_splits).  Hence OrbitAccuracy's guarantees hold for every graph.  Stdlib lists. *)
From Coq Require Import List ZArith Bool Lia.
From SK Require Import lib.Tok lib.LGraph lib.Reach model.C11_Model model.C11_Orbit proof.C11_Aut proof.C11_WL
     proof.C11_Main proof.C11_Comp proof.C11_WLPart proof.C11_OrbitProof.
Import ListNotations.

(** ---------- lookups in an induced subgraph ---------- *)
Lemma assoc_filter_keep {V} (c : list N) u (l : list (N * V)) :
  assoc u (filter (fun p => LGraph.mem (fst p) c) l) = if LGraph.mem u c then assoc u l else None.
Proof.
  induction l as [|[k v] r IH]; simpl; [destruct (LGraph.mem u c); reflexivity|].
  destruct (LGraph.mem k c) eqn:Ek; simpl.
  - destruct (N.eqb_spec u k) as [->|Hne]; [rewrite Ek; reflexivity | exact IH].
  - destruct (N.eqb_spec u k) as [->|Hne]; [rewrite Ek in *; exact IH | exact IH].
Qed.

Lemma find_edge_filter_keep {B} (c : list N) u v (es : list (N * N * B)) :
  find_edge u v (filter (fun e => let '(a, b, _) := e in LGraph.mem a c && LGraph.mem b c) es) =
  if LGraph.mem u c && LGraph.mem v c then find_edge u v es else None.
Proof.
  induction es as [|[[a b] x] r IH]; [simpl; destruct (LGraph.mem u c && LGraph.mem v c); reflexivity|].
  cbn [filter find_edge].
  destruct ((N.eqb a u && N.eqb b v) || (N.eqb a v && N.eqb b u)) eqn:M.
  - assert (Hk : LGraph.mem a c && LGraph.mem b c = LGraph.mem u c && LGraph.mem v c).
    { apply orb_true_iff in M. destruct M as [M|M]; apply andb_true_iff in M; destruct M as [M1 M2];
        apply N.eqb_eq in M1; apply N.eqb_eq in M2; subst; [reflexivity | apply andb_comm]. }
    rewrite <- Hk. destruct (LGraph.mem a c && LGraph.mem b c) eqn:K.
    + cbn [find_edge]. rewrite M. reflexivity.
    + rewrite IH, <- Hk. reflexivity.
  - destruct (LGraph.mem a c && LGraph.mem b c) eqn:K; [cbn [find_edge]; rewrite M|]; exact IH.
Qed.

Lemma induced_label (g : graph) c u : In u c -> label (induced_sub g c) u = label g u.
Proof.
  intros Hu. unfold label, induced_sub. simpl. rewrite assoc_filter_keep.
  rewrite (proj2 (LGraph.mem_spec u c) Hu). reflexivity.
Qed.

Lemma induced_adj (g : graph) c u v : In u c -> In v c -> LGraph.adj (induced_sub g c) u v = LGraph.adj g u v.
Proof.
  intros Hu Hv. unfold LGraph.adj, induced_sub. simpl. rewrite find_edge_filter_keep.
  rewrite (proj2 (LGraph.mem_spec u c) Hu), (proj2 (LGraph.mem_spec v c) Hv). reflexivity.
Qed.

(** ---------- a component is closed under adjacency ---------- *)
Section Ext.
Variable fn : nlab -> N.
Variable fe : elab -> N.
Variable g : graph.
Hypothesis Hwf : wf g.
Variable c : list N.
Hypothesis Hc : In c (components g).

Lemma comp_nodes x : In x c -> In x (node_ids g).
Proof.
  destruct (components_spec g Hwf) as (H1 & _ & _). destruct (H1 c Hc) as (u0 & Hu0 & Hx).
  intros Hin. apply Hx in Hin. induction Hin as [y Hy|a b Ha IH Hb].
  - destruct Hy as [<-|[]]. exact Hu0.
  - exact (nbrs_nodes g Hwf a b Hb).
Qed.

Lemma comp_closed u v : In u c -> LGraph.adj g u v <> None -> In v c.
Proof.
  destruct (components_spec g Hwf) as (H1 & _ & _). destruct (H1 c Hc) as (u0 & Hu0 & Hx).
  intros Hu Hadj. apply Hx. eapply conn_step; [apply Hx; exact Hu|].
  apply (nbrs_adj g Hwf). exact Hadj.
Qed.

Lemma adj_leaves_none u v : In u c -> ~ In v c -> LGraph.adj g u v = None.
Proof.
  intros Hu Hv. destruct (LGraph.adj g u v) eqn:E; [|reflexivity].
  exfalso. apply Hv. apply (comp_closed u v Hu). rewrite E. discriminate.
Qed.

Definition extend_by_id (s : N -> N) (u : N) : N := if LGraph.mem u c then s u else u.

Lemma component_aut_extends s :
  is_automorphism fn fe (induced_sub g c) s -> is_automorphism fn fe g (extend_by_id s).
Proof.
  intros (S1 & S2 & S3 & S4).
  assert (Hin : forall u, In u c -> In u (node_ids (induced_sub g c))).
  { intros u Hu. apply induced_node; [apply comp_nodes; exact Hu | exact Hu]. }
  assert (Hsc : forall u, In u c -> In (s u) c).
  { intros u Hu. apply (induced_nodes_in g c (s u)). apply S1. apply Hin. exact Hu. }
  unfold extend_by_id. split; [|split; [|split]].
  - intros u Hu. destruct (mem_reflect u c) as [M|_]; [|exact Hu]. apply comp_nodes. apply Hsc. exact M.
  - intros u v Hu Hv. destruct (mem_reflect u c) as [Mu|Mu], (mem_reflect v c) as [Mv|Mv]; intros E.
    + apply S2; [apply Hin; exact Mu | apply Hin; exact Mv | exact E].
    + exfalso. apply Mv. rewrite <- E. exact (Hsc u Mu).
    + exfalso. apply Mu. rewrite E. exact (Hsc v Mv).
    + exact E.
  - intros u Hu. destruct (mem_reflect u c) as [M|_]; [|reflexivity].
    pose proof (S3 u (Hin u M)) as H. unfold lab_of in *.
    rewrite (induced_label g c (s u) (Hsc u M)), (induced_label g c u M) in H. exact H.
  - intros u v Hu Hv. destruct (mem_reflect u c) as [Mu|Mu], (mem_reflect v c) as [Mv|Mv].
    + pose proof (S4 u v (Hin u Mu) (Hin v Mv)) as H. unfold adj_of in *.
      rewrite (induced_adj g c (s u) (s v) (Hsc u Mu) (Hsc v Mv)), (induced_adj g c u v Mu Mv) in H. exact H.
    + unfold adj_of. rewrite (adj_leaves_none (s u) v (Hsc u Mu) Mv), (adj_leaves_none u v Mu Mv). reflexivity.
    + unfold adj_of. rewrite (adj_sym g u (s v)), (adj_sym g u v).
      rewrite (adj_leaves_none (s v) u (Hsc v Mv) Mu), (adj_leaves_none v u Mv Mu). reflexivity.
    + reflexivity.
Qed.

Lemma component_orbit_in_graph_orbit u v :
  same_orbit fn fe (induced_sub g c) u v -> same_orbit fn fe g u v.
Proof.
  pose proof (wf_simple g Hwf) as Hs.
  intros H. apply (same_orbit_fun fn fe (induced_sub g c) (induced_simple g c Hs)) in H.
  destruct H as (s & Hs' & Hu & ->).
  apply (same_orbit_fun fn fe g Hs). exists (extend_by_id s). split; [apply component_aut_extends; exact Hs'|].
  destruct (induced_nodes_in g c u Hu) as [Hun Huc]. split; [exact Hun|].
  unfold extend_by_id. rewrite (proj2 (LGraph.mem_spec u c) Huc). reflexivity.
Qed.
End Ext.

(** ---------- the reported orbits are never separated ---------- *)
Lemma reported_orbit_in_graph_orbit fn fe (g : graph) : wf g ->
  forall o u v, In o (a_orbits (analyze fn fe g)) -> In u o -> In v o -> same_orbit fn fe g u v.
Proof.
  intros Hwf o u v Ho Hu Hv. pose proof (wf_simple g Hwf) as Hs.
  destruct (le_lt_dec (length (components g)) 1) as [Hc|Hc].
  - destruct (analyze_orbits_connected fn fe g Hs Hc) as (_ & _ & _ & _ & H5). apply (H5 o u v Ho Hu). exact Hv.
  - destruct (orbits_partition_all fn fe g Hwf) as (_ & _ & _ & _ & H5).
    destruct (proj1 (H5 Hc o u v Ho Hu) Hv) as (c & Hcin & _ & Hrel).
    exact (component_orbit_in_graph_orbit fn fe g Hwf c Hcin u v Hrel).
Qed.

Theorem wl_never_splits_reported (fn : nlab -> N) (fe : elab -> N) (g : graph) (k : nat) : wf g ->
  (forall c s, In c (components g) -> is_automorphism fn fe (induced_sub g c) s ->
     is_automorphism fn fe g (fun u => if LGraph.mem u c then s u else u)) /\
  (forall o u v, In o (a_orbits (analyze fn fe g)) -> In u o -> In v o ->
     col (wl fn fe g k) v = col (wl fn fe g k) u) /\
  (forall o u, In o (a_orbits (analyze fn fe g)) -> In u o ->
     exists a, In a (wl_orbits (wl fn fe g k)) /\ forall v, In v o -> In v a).
Proof.
  intros Hwf. split; [|split].
  - intros c s Hc Hs. exact (component_aut_extends fn fe g Hwf c Hc s Hs).
  - intros o u v Ho Hu Hv. destruct (reported_orbit_in_graph_orbit fn fe g Hwf o u v Ho Hu Hv) as (m & Hm & Hin).
    exact (wl_never_splits_listed fn fe g k m u v Hwf Hm Hin).
  - intros o u Ho Hu.
    destruct (orbits_partition_all fn fe g Hwf) as (_ & P2 & _).
    destruct (wl_orbits_partition fn fe g k (proj1 Hwf)) as (A1 & _).
    destruct (A1 u (P2 o u Ho Hu)) as (a & Ha & Hua). exists a. split; [exact Ha|].
    intros v Hv. apply (wl_orbits_never_split fn fe g k a u v Hwf Ha Hua).
    exact (reported_orbit_in_graph_orbit fn fe g Hwf o u v Ho Hu Hv).
Qed.

(** ---------- OrbitAccuracy for every graph ---------- *)
Theorem orbit_accuracy_all (fn : nlab -> N) (fe : elab -> N) (g : graph) (k : nat) :
  wf g ->
  let A := wl_orbits (wl fn fe g k) in
  let E := a_orbits (analyze fn fe g) in
  oa_valid A E = true /\
  (forall a e, In a A -> In e E -> inter_size a e = 0%N \/ inter_size a e = N.of_nat (length (canonN e))) /\
  (forall u v, In u (node_ids g) -> same_in E u v = true -> same_in A u v = true) /\
  ((forall u v, In u (node_ids g) -> In v (node_ids g) -> same_in A u v = true -> same_in E u v = true) ->
   fst (oa_pairwise A E) = snd (oa_pairwise A E)).
Proof.
  intros Hwf A E.
  destruct (orbits_partition_all fn fe g Hwf) as (E1 & E2 & E3 & _ & _).
  destruct (wl_orbits_partition fn fe g k (proj1 Hwf)) as (A1 & A2 & _ & _).
  set (R := fun u v => exists o, In o E /\ In u o /\ In v o).
  assert (R_sym : forall u v, R u v -> R v u) by (intros u v (o & H1 & H2 & H3); exists o; tauto).
  assert (E_exact : forall e u v, In e E -> In u e -> (In v e <-> R u v)).
  { intros e u v He Hu. split; [intros Hv; exists e; tauto|].
    intros (o & Ho & Huo & Hvo). rewrite (E3 e o u He Ho Hu Huo). exact Hvo. }
  assert (A_closed : forall a u v, In a A -> In u a -> R u v -> In v a).
  { intros a u v Ha Hu (o & Ho & Huo & Hvo). apply (wl_orbits_never_split fn fe g k a u v Hwf Ha Hu).
    exact (reported_orbit_in_graph_orbit fn fe g Hwf o u v Ho Huo Hvo). }
  assert (A_cover : forall u, In u (node_ids g) <-> exists a, In a A /\ In u a).
  { intros u. split; [apply A1 | intros (a & Ha & Hu); exact (A2 a u Ha Hu)]. }
  assert (E_cover : forall u, In u (node_ids g) <-> exists e, In e E /\ In u e).
  { intros u. split; [apply E1 | intros (e & He & Hu); exact (E2 e u He Hu)]. }
  split; [|split; [|split]].
  - exact (coarser_valid (node_ids g) A E A_cover E_cover).
  - exact (coarser_confusion R A E E_exact A_closed).
  - exact (coarser_same R (node_ids g) A E R_sym E_exact A_closed E_cover).
  - exact (coarser_perfect R (node_ids g) A E R_sym E_exact A_closed A_cover E_cover).
Qed.

(** non-vacuity: two edges C-C, C-C (two components): the swap inside the first component extends to the whole graph;
    the reported orbits {1,2}, {3,4} lie inside the single estimated class *)
Definition ex_2e : graph :=
  LG [(1%N, (0%N, 0%N, 0%N)); (2%N, (0%N, 0%N, 0%N)); (3%N, (0%N, 0%N, 0%N)); (4%N, (0%N, 0%N, 0%N))]
     [(1%N, 2%N, (0%N, 0%N)); (3%N, 4%N, (0%N, 0%N))].
Example ex_extend :
  wfb ex_2e = true /\ components ex_2e = [[2; 1]; [4; 3]]%N /\
  a_orbits (analyze n_exact e_order ex_2e) = [[1; 2]; [3; 4]]%N /\
  wl_orbits (wl n_exact e_order ex_2e 10) = [[1; 2; 3; 4]]%N /\
  In [(2, 1); (1, 2)]%N (auts n_exact e_order (induced_sub ex_2e [2; 1]%N)) /\
  In [(4, 4); (3, 3); (2, 1); (1, 2)]%N (auts n_exact e_order ex_2e) /\
  oa_metrics (wl_orbits (wl n_exact e_order ex_2e 10)) (a_orbits (analyze n_exact e_order ex_2e)) =
    L [ I 0%Z; L [I 0%Z; I 4%Z]; L [I 2%Z; I 4%Z]; L [I 2%Z; I 6%Z] ].
Proof. vm_compute. repeat split; tauto. Qed.

(** ---------- the reported orbits of a disconnected graph, semantically: no component swaps ---------- *)
(** an automorphism of the whole graph that maps every component into itself *)
Definition keeps_components (g : graph) (s : N -> N) : Prop :=
  forall c x, In c (components g) -> In x c -> In (s x) c.

Lemma keeps_lone (g : graph) s u : keeps_components g s -> In [u] (components g) -> s u = u.
Proof. intros Hk Hc. destruct (Hk [u] u Hc (or_introl eq_refl)) as [E|[]]. symmetry. exact E. Qed.

Section Restrict.
Variable fn : nlab -> N.
Variable fe : elab -> N.
Variable g : graph.
Hypothesis Hwf : wf g.
Variable c : list N.
Hypothesis Hc : In c (components g).

Lemma restriction_is_aut s :
  is_automorphism fn fe g s -> keeps_components g s -> is_automorphism fn fe (induced_sub g c) s.
Proof.
  intros (S1 & S2 & S3 & S4) Hk.
  assert (Hin : forall u, In u (node_ids (induced_sub g c)) -> In u (node_ids g) /\ In u c) by (intros u; apply induced_nodes_in).
  split; [|split; [|split]].
  - intros u Hu. destruct (Hin u Hu) as [Hun Huc]. apply induced_node; [apply S1; exact Hun | apply (Hk c u Hc Huc)].
  - intros u v Hu Hv. apply S2; [apply (Hin u Hu) | apply (Hin v Hv)].
  - intros u Hu. destruct (Hin u Hu) as [Hun Huc]. unfold lab_of.
    rewrite (induced_label g c (s u) (Hk c u Hc Huc)), (induced_label g c u Huc). apply S3. exact Hun.
  - intros u v Hu Hv. destruct (Hin u Hu) as [Hun Huc]. destruct (Hin v Hv) as [Hvn Hvc]. unfold adj_of.
    rewrite (induced_adj g c (s u) (s v) (Hk c u Hc Huc) (Hk c v Hc Hvc)), (induced_adj g c u v Huc Hvc).
    apply S4; assumption.
Qed.

Lemma extension_keeps_components s :
  is_automorphism fn fe (induced_sub g c) s -> keeps_components g (extend_by_id c s).
Proof.
  intros (S1 & _) c' x Hc' Hx. unfold extend_by_id.
  destruct (mem_reflect x c) as [M|_]; [|exact Hx].
  assert (Hsx : In (s x) c).
  { apply (induced_nodes_in g c (s x)). apply S1. apply induced_node; [apply (comp_nodes g Hwf c Hc); exact M | exact M]. }
  destruct (components_spec g Hwf) as (_ & Hdisj & _).
  rewrite <- (pairwise_disjoint_eq _ Hdisj c c' x Hc Hc' M Hx). exact Hsx.
Qed.
End Restrict.

Lemma one_component_kept fn fe (g : graph) s : wf g -> (length (components g) <= 1)%nat ->
  is_automorphism fn fe g s -> keeps_components g s.
Proof.
  intros Hwf Hc (S1 & _) c x Hcin Hx.
  destruct (components_spec g Hwf) as (_ & _ & C3).
  destruct (C3 (s x) (S1 x (comp_nodes g Hwf c Hcin x Hx))) as (c' & Hc' & Hsx).
  assert (c' = c).
  { destruct (components g) as [|c0 [|c1 r]]; simpl in Hc; try lia; [destruct Hcin|].
    destruct Hcin as [<-|[]]. destruct Hc' as [<-|[]]. reflexivity. }
  subst c'. exact Hsx.
Qed.

Theorem orbits_no_swaps (fn : nlab -> N) (fe : elab -> N) (g : graph) : wf g ->
  forall o u v, In o (a_orbits (analyze fn fe g)) -> In u o ->
    (In v o <-> exists s, is_automorphism fn fe g s /\ keeps_components g s /\ s u = v).
Proof.
  intros Hwf o u v Ho Hu. pose proof (wf_simple g Hwf) as Hs.
  destruct (orbits_partition_all fn fe g Hwf) as (_ & P2 & _ & _ & P5).
  destruct (le_lt_dec (length (components g)) 1) as [Hc|Hc].
  - destruct (analyze_orbits_connected fn fe g Hs Hc) as (_ & _ & _ & _ & H5).
    rewrite (H5 o u v Ho Hu), (same_orbit_fun fn fe g Hs). split.
    + intros (s & Hsa & Hun & ->). exists s. split; [exact Hsa|]. split; [|reflexivity].
      exact (one_component_kept fn fe g s Hwf Hc Hsa).
    + intros (s & Hsa & _ & <-). exists s. split; [exact Hsa|]. split; [exact (P2 o u Ho Hu) | reflexivity].
  - rewrite (P5 Hc o u v Ho Hu). split.
    + intros (c & Hcin & Huc & Hrel).
      apply (same_orbit_fun fn fe (induced_sub g c) (induced_simple g c Hs)) in Hrel.
      destruct Hrel as (s & Hsa & Hun & ->).
      exists (extend_by_id c s). split; [exact (component_aut_extends fn fe g Hwf c Hcin s Hsa)|].
      split; [exact (extension_keeps_components fn fe g Hwf c Hcin s Hsa)|].
      unfold extend_by_id. rewrite (proj2 (LGraph.mem_spec u c) Huc). reflexivity.
    + intros (s & Hsa & Hk & <-).
      destruct (components_spec g Hwf) as (_ & _ & C3).
      destruct (C3 u (P2 o u Ho Hu)) as (c & Hcin & Huc).
      exists c. split; [exact Hcin|]. split; [exact Huc|].
      apply (same_orbit_fun fn fe (induced_sub g c) (induced_simple g c Hs)).
      exists s. split; [exact (restriction_is_aut fn fe g c Hcin s Hsa Hk)|].
      split; [apply induced_node; [exact (P2 o u Ho Hu) | exact Huc] | reflexivity].
Qed.
