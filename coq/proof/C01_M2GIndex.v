(** C01 — closed form of MolToGraph.transform with its default flags (model/C01_M2GIdx.v) *)
From Coq Require Import List NArith ZArith Bool Lia Arith.
From SK Require Import lib.LGraph lib.C01_GraphLemmas model.C01_Model model.C02_Model model.C01_String model.C01_M2GIdx
  proof.C01_Proof proof.C01_StringProof.
Import ListNotations.

Definition idn (ia : nat * ratom) : N * gnode := ((N.of_nat (fst ia) + 1)%N, atom_node (snd ia)).
Definition idx (ia : nat * ratom) : nat * N := (fst ia, (N.of_nat (fst ia) + 1)%N).

Lemma m2g_atoms_index (l : list ratom) : forall s ns ix,
  (forall k, In k (map fst ns) -> (k <= N.of_nat s)%N) ->
  fold_left (m2g_atom false false) (combine (seq s (length l)) l) (ns, ix) =
  (ns ++ map idn (combine (seq s (length l)) l), ix ++ map idx (combine (seq s (length l)) l)).
Proof.
  induction l as [|a l IH]; intros s ns ix Hk.
  - cbn. rewrite !app_nil_r. reflexivity.
  - cbn [length seq combine fold_left map]. unfold m2g_atom at 2. cbn [andb fst snd]. unfold atom_id. cbn [andb].
    rewrite upsert_fresh by (intros F; specialize (Hk _ F); lia).
    rewrite (IH (S s)).
    + rewrite <- !app_assoc. reflexivity.
    + intros k Ik. rewrite map_app in Ik. apply in_app_iff in Ik. destruct Ik as [Ik|[<-|[]]]; [specialize (Hk k Ik); lia|cbn [fst]; lia].
Qed.

Lemma lookup_index_ix (l : list ratom) i : forall s,
  lookup_idx i (map idx (combine (seq s (length l)) l)) =
  if (Nat.leb s i && Nat.ltb i (s + length l))%bool then Some (N.of_nat i + 1)%N else None.
Proof.
  induction l as [|a l IH]; intros s.
  - cbn [length seq combine map lookup_idx]. destruct (Nat.leb_spec s i), (Nat.ltb_spec i (s + 0)); cbn [andb]; try reflexivity; exfalso; lia.
  - cbn [length seq combine map lookup_idx idx fst]. destruct (Nat.eqb_spec i s) as [->|Hne].
    + destruct (Nat.leb_spec s s), (Nat.ltb_spec s (s + S (length l))); cbn [andb]; try reflexivity; exfalso; lia.
    + rewrite (IH (S s)).
      destruct (Nat.leb_spec (S s) i), (Nat.ltb_spec i (S s + length l)), (Nat.leb_spec s i), (Nat.ltb_spec i (s + S (length l))); cbn [andb]; try reflexivity; exfalso; lia.
Qed.

Theorem mol_to_graph_index (m : rmol) : simple (index_bonds m) -> mol_to_graph false false m = Some (index_graph m).
Proof.
  intros Hs. unfold mol_to_graph. cbn [andb negb]. unfold enumerate.
  rewrite (m2g_atoms_index (rm_atoms m) 0 [] []) by (intros k []). cbn [fst snd app].
  assert (flat_map (bond_edge (map idx (combine (seq 0 (length (rm_atoms m))) (rm_atoms m)))) (rm_bonds m) = index_bonds m) as EB.
  { unfold index_bonds. apply flat_map_ext. intros [[i j] o]. unfold bond_edge. cbn [fst snd].
    rewrite !lookup_index_ix. cbn [Nat.leb andb plus].
    destruct (Nat.ltb i (length (rm_atoms m))), (Nat.ltb j (length (rm_atoms m))); reflexivity. }
  rewrite (m2g_bonds_closed _ (rm_bonds m) []) by (cbn [app]; rewrite EB; exact Hs).
  cbn [app]. rewrite EB. reflexivity.
Qed.

(** every atom is a node, keyed by index + 1, with the atom's labels and ITS atom map (0 when unmapped) *)
Lemma index_graph_label (m : rmol) i a : nth_error (rm_atoms m) i = Some a ->
  label (index_graph m) (N.of_nat i + 1) = Some (atom_node a).
Proof.
  intros E. unfold label, index_graph, index_nodes, enumerate. cbn [gnodes].
  assert (forall l s, nth_error l (i - s) = Some a -> (s <= i)%nat ->
            assoc (N.of_nat i + 1)%N (map (fun ia : nat * ratom => ((N.of_nat (fst ia) + 1)%N, atom_node (snd ia))) (combine (seq s (length l)) l)) = Some (atom_node a)) as K.
  { induction l as [|b l IH]; intros s En Hle; [destruct (i - s)%nat; discriminate|].
    cbn [length seq combine map assoc fst snd]. destruct (N.eqb_spec (N.of_nat i + 1) (N.of_nat s + 1)) as [Eq|Ne].
    - assert (i = s) as -> by lia. rewrite Nat.sub_diag in En. cbn in En. inversion En. reflexivity.
    - apply IH; [|lia]. replace (i - s)%nat with (S (i - S s)) in En by lia. exact En. }
  apply (K (rm_atoms m) 0%nat); [rewrite Nat.sub_0_r; exact E|lia].
Qed.

Definition ex_im : rmol := RM [RA 70%N false 3%Z 0%Z 0%N [82%N]; RA 82%N false 1%Z 0%Z 7%N [70%N]] [(0%nat, 1%nat, 2%Z)].
Example C01_mol_to_graph_index_nonvacuous :
  simple (index_bonds ex_im) /\ mol_to_graph false false ex_im = Some (index_graph ex_im) /\
  gnodes (index_graph ex_im) = [(1%N, atom_node (RA 70%N false 3%Z 0%Z 0%N [82%N])); (2%N, atom_node (RA 82%N false 1%Z 0%Z 7%N [70%N]))] /\
  gedges (index_graph ex_im) = [(1%N, 2%N, 2%Z)].
Proof. split; [repeat constructor|]. split; [reflexivity|]. split; reflexivity. Qed.
