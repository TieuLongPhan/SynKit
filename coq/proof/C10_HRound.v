(** C10 — proofs: h_to_explicit and h_to_implicit through the two lookups.  The loop invariant of the explicit
    direction (either mode, any node list) and of the implicit direction on the graph it produces; from them the heavy skeleton
    and the round trip h_to_implicit (h_to_explicit g), on every networkx graph whose hydrogen atoms are all bare, stated on the
    graph before the final normalize_edge_orders of the ITS mode (that step is proof/C10_HRoundIts.v). *)
From Coq Require Import String List NArith ZArith Bool Lia Permutation.
From SK Require Import lib.LGraph lib.StrJoin model.C10_Model model.C10_Rxn proof.C10_Views proof.C10_Build proof.C10_Copy
  proof.C10_Hydrogen.
Import ListNotations.
Local Open Scope Z_scope.

Definition padj (P : list (N * N)) (u v : N) : bool := existsb (fun p : N * N => pair_eqb (fst p) (snd p) u v) P.
Definition cnt (n : N) (P : list (N * N)) : nat := List.length (filter (fun p : N * N => N.eqb (snd p) n) P).
Definition cval (a : natt) : Z := dflt (a_hc a) 0.
Definition upd (a : natt) : natt := if 0 <? cval a then dec_h (cval a) a else a.

Lemma padj_app P Q u v : padj (P ++ Q) u v = padj P u v || padj Q u v.
Proof. apply existsb_app. Qed.
Lemma padj_sym P u v : padj P u v = padj P v u.
Proof. unfold padj. induction P as [|p r IH]; simpl; [reflexivity|]. rewrite IH, pair_eqb_swap. reflexivity. Qed.
Lemma cnt_app n P Q : cnt n (P ++ Q) = (cnt n P + cnt n Q)%nat.
Proof. unfold cnt. rewrite filter_app, app_length. reflexivity. Qed.

Lemma gwfb_gwf g : gwfb g = true -> gwf g.
Proof.
  unfold gwfb. intros H. apply andb_true_iff in H. destruct H as [H H3]. apply andb_true_iff in H. destruct H as [H1 H2].
  split; [apply nodupb_NoDup; exact H1|exact H2|].
  intros a b x Hin. rewrite forallb_forall in H3. specialize (H3 _ Hin). simpl in H3. apply andb_true_iff in H3. exact H3.
Qed.

(** every hydrogen atom is bare: no implicit hydrogens of its own, only hydrogen neighbours (H2, H+, H-, a lone H) *)
Definition bare_H (g : gr) : Prop :=
  forall n a, label g n = Some a -> el_is_H a = true -> dflt (a_hc a) 0 <= 0 /\ forall w, adj g n w <> None -> is_H g w = true.
Lemma no_H_spec g : no_H g = true -> forall n a, label g n = Some a -> el_is_H a = false.
Proof.
  unfold no_H. rewrite forallb_forall. intros H n a L. apply assoc_in in L. apply negb_true_iff. exact (H _ L).
Qed.
Lemma no_H_bare g : no_H g = true -> bare_H g.
Proof. intros H n a L Ha. rewrite (no_H_spec g H n a L) in Ha. discriminate. Qed.

Lemma hexp_count_le its a : dflt (a_hc a) 0 <= 0 -> hexp_count its a <= 0.
Proof.
  unfold hexp_count. destruct its; [|auto]. destruct (a_tgh a) as [[t1 [[[e2 a2] h2] q2]]|]; [|auto]. intros H. lia.
Qed.
Lemma hexp_count_lowered its a : hexp_count its (h_lowered_gen its a) <= 0.
Proof.
  unfold h_lowered_gen. destruct (Z.ltb_spec 0 (hexp_count its a)) as [Hc|Hc]; [|exact Hc].
  destruct a as [el ar hc ch am tg]. unfold hexp_count in *. simpl in *.
  destruct its; simpl in *; [destruct tg as [[[[[e a1] h1] q1] [[[e2 a2] h2] q2]]|]; simpl in *|]; lia.
Qed.
Lemma el_lowered its a : el_is_H (h_lowered_gen its a) = el_is_H a.
Proof. unfold h_lowered_gen. destruct (0 <? hexp_count its a); [destruct its|]; reflexivity. Qed.

Section Explicit.
Variable g : gr.
Hypothesis W : gwf g.
Let ids := node_ids g.
Let mxg := max_id g.

Lemma ids_le n : In n ids -> (n <= mxg)%N.
Proof. apply bounded_max_id. Qed.
Lemma adj_g_out u v : (mxg < u)%N \/ (mxg < v)%N -> adj g u v = None.
Proof.
  intros H. destruct (adj g u v) as [x|] eqn:A; [|reflexivity]. exfalso. destruct (adj_ends g u v x W A) as [Ha Hb].
  apply has_node_in, ids_le in Ha. apply has_node_in, ids_le in Hb. lia.
Qed.

(** state invariant of the loop of h_to_explicit; [P] lists the (hydrogen id, heavy atom) pairs created so far *)
Record EInv (G : gr) (mx : N) (P : list (N * N)) : Prop := {
  ei_ids : node_ids G = ids ++ map fst P;
  ei_rng : forall h, In h (map fst P) -> (mxg < h <= mx)%N;
  ei_nd : NoDup (map fst P);
  ei_mx : (mxg <= mx)%N;
  ei_h : forall h m, In (h, m) P -> label G h = Some H_att /\ In m ids;
  ei_adj : forall u v, adj G u v = if padj P u v then Some e_single else adj g u v;
  ei_wf : gwf G }.

Lemma EInv_bounded G mx P : EInv G mx P -> bounded G mx.
Proof.
  intros I n Hn. rewrite (ei_ids _ _ _ I) in Hn. apply in_app_iff in Hn. destruct Hn as [Hn|Hn].
  - apply ids_le in Hn. pose proof (ei_mx _ _ _ I). lia.
  - apply (ei_rng _ _ _ I) in Hn. lia.
Qed.

Lemma padj_fresh P mx n h : (forall h', In h' (map fst P) -> (mxg < h' <= mx)%N) ->
  (forall h' m, In (h', m) P -> In m ids) -> In n ids -> (mx < h)%N -> (mxg <= mx)%N -> padj P n h = false.
Proof.
  intros Hr Hm Hn Hh Hmx. destruct (padj P n h) eqn:E; [|reflexivity]. exfalso.
  unfold padj in E. apply existsb_exists in E. destruct E as ([h' m'] & Hin & Pq). simpl in Pq.
  pose proof (Hr h' (in_map fst _ _ Hin)) as R. simpl in R. pose proof (ids_le _ (Hm _ _ Hin)) as M. pose proof (ids_le _ Hn).
  apply pair_eqb_spec in Pq. destruct Pq as [[-> ->]|[-> ->]]; lia.
Qed.

Lemma add_h1_inv G mx P n : EInv G mx P -> In n ids ->
  EInv (add_h1 G mx n) (N.succ mx) (P ++ [(N.succ mx, n)]) /\
  (forall m, In m (node_ids G) -> label (add_h1 G mx n) m = label G m).
Proof.
  intros I Hn. pose proof (EInv_bounded _ _ _ I) as B.
  assert (has_node G n = true) as Hh.
  { apply has_node_in. rewrite (ei_ids _ _ _ I). apply in_app_iff. left. exact Hn. }
  pose proof (gnodes_add_h1 G mx n B Hh) as EG.
  assert (forall m, In m (node_ids G) -> label (add_h1 G mx n) m = label G m) as Hlab.
  { intros m Hm. unfold label. rewrite EG, assoc_app. apply has_node_in, has_node_label in Hm. destruct Hm as [a Ha].
    unfold label in Ha. rewrite Ha. reflexivity. }
  split; [|exact Hlab]. split.
  - unfold node_ids. rewrite EG, map_app. fold (node_ids G). rewrite (ei_ids _ _ _ I), map_app, app_assoc. reflexivity.
  - intros h Hin. rewrite map_app, in_app_iff in Hin. destruct Hin as [Hin|[<-|[]]].
    + apply (ei_rng _ _ _ I) in Hin. lia.
    + pose proof (ei_mx _ _ _ I). simpl. lia.
  - rewrite map_app. apply NoDup_snoc; [exact (ei_nd _ _ _ I)|]. intros Hin. apply (ei_rng _ _ _ I) in Hin. simpl in Hin. lia.
  - pose proof (ei_mx _ _ _ I). lia.
  - intros h m Hin. apply in_app_iff in Hin. destruct Hin as [Hin|[E|[]]].
    + destruct (ei_h _ _ _ I h m Hin) as [L M]. split; [|exact M]. rewrite Hlab; [exact L|].
      apply has_node_in, has_node_label. eauto.
    + inversion E; subst. split; [|exact Hn]. unfold label. rewrite EG, assoc_app.
      pose proof (fresh_succ G mx B) as F. apply has_node_false in F. unfold label in F. rewrite F. simpl.
      rewrite N.eqb_refl. reflexivity.
  - intros u v. unfold add_h1. rewrite adj_add_edge, !adj_add_node, !(ei_adj _ _ _ I), padj_app. simpl.
    rewrite orb_false_r, (pair_eqb_swap_l (N.succ mx) n).
    rewrite (padj_fresh P mx n (N.succ mx) (ei_rng _ _ _ I) (fun h' m H => proj2 (ei_h _ _ _ I h' m H)) Hn) by (try lia; apply (ei_mx _ _ _ I)).
    rewrite adj_g_out by (right; pose proof (ei_mx _ _ _ I); lia).
    destruct (pair_eqb n (N.succ mx) u v); [rewrite orb_true_r; reflexivity|rewrite orb_false_r; reflexivity].
  - unfold add_h1. apply gwf_add_edge, gwf_add_node. exact (ei_wf _ _ _ I).
Qed.

Fixpoint newP (k : nat) (n mx : N) : list (N * N) :=
  match k with O => [] | S k' => (N.succ mx, n) :: newP k' n (N.succ mx) end.
Lemma cnt_newP k n : forall mx m, cnt m (newP k n mx) = if N.eqb n m then k else O.
Proof.
  induction k as [|k IH]; intros mx m; simpl; [destruct (N.eqb n m); reflexivity|].
  unfold cnt in *. simpl. specialize (IH (N.succ mx) m). destruct (N.eqb n m); simpl; rewrite IH; reflexivity.
Qed.

Lemma add_hs_inv k n : forall G mx P, EInv G mx P -> In n ids ->
  let st := add_hs k n (G, mx) in
  EInv (fst st) (snd st) (P ++ newP k n mx) /\ (forall m, In m (node_ids G) -> label (fst st) m = label G m).
Proof.
  induction k as [|k IH]; intros G mx P I Hn; simpl.
  - rewrite app_nil_r. split; [exact I|reflexivity].
  - fold (add_h1 G mx n). destruct (add_h1_inv G mx P n I Hn) as [I1 L1].
    destruct (IH _ _ _ I1 Hn) as [I2 L2]. cbv zeta in *. split.
    + rewrite <- app_assoc in I2. exact I2.
    + intros m Hm. rewrite L2, L1; [reflexivity|exact Hm|].
      rewrite (ei_ids _ _ _ I1), map_app, app_assoc, <- (ei_ids _ _ _ I). apply in_app_iff. left. exact Hm.
Qed.

(** the outer loop, either mode; [done] = the entries of the node list visited so far *)
Variable its : bool.
Definition lab_ok (G : gr) (done : list N) : Prop :=
  forall n, In n ids -> label G n = option_map (fun a => if mem n done then h_lowered_gen its a else a) (label g n).
Definition cnt_ok (P : list (N * N)) (done : list N) : Prop :=
  forall n a, label g n = Some a -> cnt n P = if mem n done then Z.to_nat (hexp_count its a) else O.

Lemma EInv_set_node G mx P n f : EInv G mx P -> In n ids -> EInv (set_node G n f) mx P.
Proof.
  intros I Hn. split.
  - rewrite node_ids_set_node. exact (ei_ids _ _ _ I).
  - exact (ei_rng _ _ _ I).
  - exact (ei_nd _ _ _ I).
  - exact (ei_mx _ _ _ I).
  - intros h m Hin. destruct (ei_h _ _ _ I h m Hin) as [L M]. split; [|exact M].
    rewrite label_set_node. destruct (N.eqb_spec h n) as [->|]; [|exact L].
    exfalso. pose proof (ei_rng _ _ _ I n (in_map fst _ _ Hin)) as R. apply ids_le in Hn. simpl in R. lia.
  - exact (ei_adj _ _ _ I).
  - apply gwf_set_node. exact (ei_wf _ _ _ I).
Qed.

(** an entry that is no atom of g, or was visited before, or has nothing to expand leaves both tables as they are *)
Lemma tables_skip G P done n : lab_ok G done -> cnt_ok P done ->
  (forall a, label g n = Some a -> mem n done = true \/ hexp_count its a <= 0) ->
  lab_ok G (n :: done) /\ cnt_ok P (n :: done).
Proof.
  intros HL HC Hn. split.
  - intros m Hm. rewrite (HL m Hm). destruct (label g m) as [a|] eqn:La; [|reflexivity]. simpl.
    destruct (N.eqb_spec m n) as [->|]; [|reflexivity]. simpl.
    destruct (Hn a La) as [->|Hc]; [reflexivity|]. destruct (mem n done); [reflexivity|].
    unfold h_lowered_gen. destruct (Z.ltb_spec 0 (hexp_count its a)); [lia|reflexivity].
  - intros m a La. rewrite (HC m a La). simpl. destruct (N.eqb_spec m n) as [->|]; [|reflexivity]. simpl.
    destruct (Hn a La) as [->|Hc]; [reflexivity|]. destruct (mem n done); [reflexivity|].
    destruct (hexp_count its a); try reflexivity; lia.
Qed.

(** one iteration, for an ARBITRARY entry of the node list (duplicates, ids that are not nodes, ids of hydrogens created
    on the way) *)
Lemma hexp_step_inv G mx P done n :
  EInv G mx P -> lab_ok G done -> cnt_ok P done ->
  exists P', let st := hexp_step_gen its (G, mx) n in
    EInv (fst st) (snd st) P' /\ lab_ok (fst st) (n :: done) /\ cnt_ok P' (n :: done).
Proof.
  intros I HL HC. unfold hexp_step_gen.
  assert (forall a, label g n = Some a -> label G n = Some (if mem n done then h_lowered_gen its a else a)) as Ln.
  { intros a La. rewrite (HL n), La; [reflexivity|]. apply has_node_in, has_node_label. eauto. }
  destruct (label G n) as [b|] eqn:Lb.
  2:{ exists P. destruct (tables_skip G P done n HL HC) as [L C]; [|auto]. intros a La. discriminate (Ln a La). }
  cbv zeta. destruct (Z.leb_spec (hexp_count its b) 0) as [Hc|Hc].
  { exists P. destruct (tables_skip G P done n HL HC) as [L C]; [|auto]. intros a La. injection (Ln a La) as ->.
    destruct (mem n done); auto. }
  (* b has hydrogens to expand: it is an atom of g (an added hydrogen has none) not visited before (a lowered atom has none) *)
  assert (In n ids) as Hn.
  { destruct (in_dec N.eq_dec n ids) as [Hn|Hn]; [exact Hn|]. exfalso.
    assert (In n (node_ids G)) as HG by (apply has_node_in, has_node_label; eauto).
    rewrite (ei_ids _ _ _ I) in HG. apply in_app_iff in HG. destruct HG as [HG|HG]; [contradiction|].
    apply in_map_iff in HG. destruct HG as ([h m] & E & Hin). simpl in E. subst h.
    destruct (ei_h _ _ _ I n m Hin) as [LH _]. rewrite LH in Lb. injection Lb as <-.
    assert (hexp_count its H_att = 0) as E0 by (destruct its; reflexivity). lia. }
  assert (exists a, label g n = Some a) as [a La] by (apply has_node_label, has_node_in; exact Hn).
  injection (Ln a La) as ->.
  destruct (mem n done) eqn:Mn; [pose proof (hexp_count_lowered its a); lia|].
  set (c := hexp_count its a) in *.
  pose proof (add_hs_inv (Z.to_nat c) n G mx P I Hn) as [I1 L1]. cbv zeta in I1, L1.
  destruct (add_hs (Z.to_nat c) n (G, mx)) as [G1 mx1]. simpl in I1, L1.
  exists (P ++ newP (Z.to_nat c) n mx). simpl. split; [apply EInv_set_node; assumption|split].
  - intros m Hm. rewrite label_set_node.
    assert (In m (node_ids G)) as HmG by (rewrite (ei_ids _ _ _ I); apply in_app_iff; left; exact Hm).
    rewrite (L1 m HmG), (HL m Hm). destruct (label g m) as [b|] eqn:Lm; simpl.
    + destruct (N.eqb_spec m n) as [->|Hne]; simpl; [|reflexivity].
      rewrite Mn. assert (b = a) as -> by congruence. unfold h_lowered_gen. fold c.
      destruct (Z.ltb_spec 0 c); [destruct its; reflexivity|lia].
    + destruct (N.eqb m n); reflexivity.
  - intros m b Lm. rewrite cnt_app, (HC m b Lm), cnt_newP. simpl. rewrite (N.eqb_sym n m).
    destruct (N.eqb_spec m n) as [->|]; simpl; [|lia]. rewrite Mn. assert (b = a) as -> by congruence. reflexivity.
Qed.

Lemma hexp_fold_inv ns : forall G mx P done,
  EInv G mx P -> lab_ok G done -> cnt_ok P done ->
  exists P', let st := fold_left (hexp_step_gen its) ns (G, mx) in
    EInv (fst st) (snd st) P' /\ lab_ok (fst st) (rev ns ++ done) /\ cnt_ok P' (rev ns ++ done).
Proof.
  induction ns as [|n r IH]; intros G mx P done I HL HC; cbn [fold_left rev app].
  - exists P. auto.
  - destruct (hexp_step_inv G mx P done n I HL HC) as (P1 & I1 & L1 & C1). cbv zeta in *.
    destruct (hexp_step_gen its (G, mx) n) as [G1 mx1]. simpl in *.
    destruct (IH G1 mx1 P1 (n :: done) I1 L1 C1) as (P2 & H2). exists P2. rewrite <- app_assoc. exact H2.
Qed.
End Explicit.

Definition P_ok (g : gr) (Pr : list (N * N)) : Prop :=
  NoDup (map fst Pr) /\ forall h m, In (h, m) Pr -> ~ In h (node_ids g) /\ In m (node_ids g).

(** the whole loop of h_to_explicit, before the final normalisation of the ITS mode *)
Definition hexp_loop (g : gr) (nodes : option (list N)) (its : bool) : gr * N :=
  fold_left (hexp_step_gen its) (exp_nodes g nodes) (copy g, max_id g).

Lemma hexp_run (g : gr) (nodes : option (list N)) (its : bool) : gwf g ->
  exists P, EInv g (fst (hexp_loop g nodes its)) (snd (hexp_loop g nodes its)) P /\ P_ok g P /\
    (forall n a, label g n = Some a ->
       label (fst (hexp_loop g nodes its)) n = Some (if mem n (exp_nodes g nodes) then h_lowered_gen its a else a)) /\
    (forall n a, label g n = Some a -> cnt n P = if mem n (exp_nodes g nodes) then Z.to_nat (hexp_count its a) else O).
Proof.
  intros W.
  assert (EInv g (copy g) (max_id g) []) as I0.
  { split; simpl; try (intros; contradiction).
    - rewrite app_nil_r. reflexivity.
    - constructor.
    - lia.
    - intros u v. apply adj_copy. exact W.
    - apply gwf_copy. exact W. }
  assert (lab_ok g its (copy g) []) as L0 by (intros n _; rewrite label_copy; destruct (label g n); reflexivity).
  assert (cnt_ok g its [] []) as C0 by (intros n a _; reflexivity).
  destruct (hexp_fold_inv g W its (exp_nodes g nodes) (copy g) (max_id g) [] [] I0 L0 C0) as (P & IE & LE & CE).
  cbv zeta in IE, LE, CE. fold (hexp_loop g nodes its) in IE, LE.
  assert (forall n, mem n (rev (exp_nodes g nodes) ++ []) = mem n (exp_nodes g nodes)) as Hm.
  { intros n. apply eq_true_iff_eq. rewrite !mem_spec, app_nil_r, <- in_rev. reflexivity. }
  exists P. split; [exact IE|split; [|split]].
  - split; [exact (ei_nd _ _ _ _ IE)|]. intros h m Hin. split; [|apply (ei_h _ _ _ _ IE h m Hin)].
    intros Hh. apply (bounded_max_id g) in Hh. pose proof (ei_rng _ _ _ _ IE h (in_map fst _ _ Hin)) as R. simpl in R. lia.
  - intros n a La. rewrite (LE n), La; [simpl; rewrite Hm; reflexivity|]. apply has_node_in, has_node_label. eauto.
  - intros n a La. rewrite (CE n a La), Hm. reflexivity.
Qed.

(** the whole graph expanded with its=False, as the GML writer does *)
Lemma hexp_run_all (c : gr) : gwf c ->
  exists mx P, EInv c (h_to_explicit c None false) mx P /\ P_ok c P /\
    forall n a, label c n = Some a -> label (h_to_explicit c None false) n = Some (upd a).
Proof.
  intros W. destruct (hexp_run c None false W) as (P & IE & HP & LE & _). exists (snd (hexp_loop c None false)), P.
  split; [exact IE|split; [exact HP|]]. intros n a La. change (h_to_explicit c None false) with (fst (hexp_loop c None false)).
  rewrite (LE n a La). assert (mem n (exp_nodes c None) = true) as -> by (apply mem_spec, has_node_in, has_node_label; eauto). reflexivity.
Qed.

(** ** the implicit direction on the graph produced by the explicit one *)
Fixpoint iter_inc (k : nat) (a : natt) : natt := match k with O => a | S k' => inc_h (iter_inc k' a) end.
Lemma el_iter_inc k a : el_is_H (iter_inc k a) = el_is_H a.
Proof. induction k as [|k IH]; simpl; [reflexivity|]. rewrite <- IH. reflexivity. Qed.
Lemma cnt_cons n p P : cnt n (p :: P) = ((if N.eqb (snd p) n then 1 else 0) + cnt n P)%nat.
Proof. unfold cnt. simpl. destruct (N.eqb (snd p) n); reflexivity. Qed.

Lemma find_edge_filter_none (p : N * N * eatt -> bool) u v es : find_edge u v es = None -> find_edge u v (filter p es) = None.
Proof.
  induction es as [|[[a b] x] r IH]; [reflexivity|]. rewrite find_edge_cons. destruct (pair_eqb a b u v) eqn:P; [discriminate|].
  intros H. simpl. destruct (p (a, b, x)); [rewrite find_edge_cons, P|]; apply IH; exact H.
Qed.
Lemma uniq_filter (p : N * N * eatt -> bool) es : uniq_pairs es = true -> uniq_pairs (filter p es) = true.
Proof.
  induction es as [|[[a b] x] r IH]; [reflexivity|]. simpl. destruct (find_edge a b r) eqn:F; [discriminate|]. intros U.
  destruct (p (a, b, x)); [|apply IH; exact U]. simpl. rewrite (find_edge_filter_none p a b r F). apply IH. exact U.
Qed.
Lemma NoDup_fst_inj (P : list (N * N)) h m m' : NoDup (map fst P) -> In (h, m) P -> In (h, m') P -> m = m'.
Proof.
  induction P as [|[h0 m0] r IH]; [intros _ []|]. simpl. intros Hnd. inversion Hnd as [|? ? Hnot Hnd']; subst.
  intros [E|H] [E'|H'].
  - congruence.
  - inversion E; subst. exfalso. apply Hnot. apply (in_map fst _ _ H').
  - inversion E'; subst. exfalso. apply Hnot. apply (in_map fst _ _ H).
  - apply IH; assumption.
Qed.
Lemma in_cnt_pos h n P : In (h, n) P -> (0 < cnt n P)%nat.
Proof.
  induction P as [|p t IH]; [intros []|]. rewrite cnt_cons. intros [->|Hin]; [simpl; rewrite N.eqb_refl|specialize (IH Hin)]; lia.
Qed.

Section Implicit.
Variable g : gr.
Hypothesis W : gwf g.
Let ids := node_ids g.
(** what h_to_explicit left at the old nodes (hcount lowered on the atoms that were expanded, untouched elsewhere) *)
Variable base : N -> natt -> natt.
Hypothesis base_el : forall n a, el_is_H (base n a) = el_is_H a.

Lemma adj_g_notin u v : ~ In u ids \/ ~ In v ids -> adj g u v = None.
Proof.
  intros H. destruct (adj g u v) as [x|] eqn:A; [|reflexivity]. exfalso. destruct (adj_ends g u v x W A) as [Ha Hb].
  apply has_node_in in Ha, Hb. tauto.
Qed.

Record IInv (G : gr) (Pd Pr : list (N * N)) : Prop := {
  ii_ids : node_ids G = ids ++ map fst Pr;
  ii_lab : forall n, In n ids -> label G n = option_map (fun a => iter_inc (cnt n Pd) (base n a)) (label g n);
  ii_h : forall h m, In (h, m) Pr -> label G h = Some H_att;
  ii_adj : forall u v, adj G u v = if padj Pr u v then Some e_single else adj g u v;
  ii_uq : uniq_pairs (gedges G) = true }.


Lemma padj_with_h Pr h w : P_ok g Pr -> ~ In h ids -> padj Pr h w = true -> In (h, w) Pr.
Proof.
  intros [_ Hp] Hh E. unfold padj in E. apply existsb_exists in E. destruct E as ([h' m'] & Hin & Pq). simpl in Pq.
  apply pair_eqb_spec in Pq. destruct Pq as [[-> ->]|[-> ->]]; [exact Hin|].
  exfalso. apply Hh. apply (Hp _ _ Hin).
Qed.

(** one added hydrogen (h, m) folded back; its atom m is not a hydrogen *)
Lemma himp_at G Pd h m Pr : IInv G Pd ((h, m) :: Pr) -> P_ok g ((h, m) :: Pr) ->
  (forall a, label g m = Some a -> el_is_H a = false) ->
  himp_step G h = fold1 G m h /\ IInv (fold1 G m h) ((h, m) :: Pd) Pr.
Proof.
  intros I [Hnd Hp] Hpar. destruct (Hp h m (or_introl eq_refl)) as [Hh Hm].
  assert (P_ok g Pr) as HPr.
  { split; [inversion Hnd; assumption|]. intros h' m' Hin. apply Hp. right. exact Hin. }
  assert (~ In h (map fst Pr)) as Hhr by (inversion Hnd; assumption).
  assert (forall w, padj Pr h w = false) as Hpadj.
  { intros w. destruct (padj Pr h w) eqn:E; [|reflexivity]. exfalso. apply Hhr.
    apply (in_map fst _ _ (padj_with_h Pr h w HPr Hh E)). }
  assert (nbrs G h = [m]) as Hn.
  { apply singleton_list; [apply NoDup_nbrs, (ii_uq _ _ _ I)|]. intros w. rewrite in_nbrs_adj, (ii_adj _ _ _ I).
    simpl. fold (padj Pr h w). rewrite (Hpadj w), orb_false_r.
    rewrite (adj_g_notin h w) by (left; exact Hh). split.
    - destruct (pair_eqb h m h w) eqn:Pq; [|congruence]. intros _. apply pair_eqb_spec in Pq.
      destruct Pq as [[_ ->]|[-> <-]]; reflexivity.
    - intros ->. rewrite pair_eqb_refl. discriminate. }
  assert (is_H G m = false) as HmH.
  { unfold is_H. rewrite (ii_lab _ _ _ I m Hm). destruct (label g m) as [a|] eqn:La; [|reflexivity]. simpl.
    rewrite el_iter_inc, base_el. apply (Hpar a eq_refl). }
  split.
  { apply himp_step_single. unfold heavy_nbrs. rewrite Hn. simpl. rewrite HmH. reflexivity. }
  assert (m <> h) as Hmh by (intros ->; contradiction).
  split.
  - unfold fold1. rewrite node_ids_remove_node, node_ids_set_node, (ii_ids _ _ _ I). simpl map.
    rewrite filter_app. simpl. rewrite N.eqb_refl. simpl. rewrite !filter_ne_notin by assumption. reflexivity.
  - intros n Hn'. unfold fold1. rewrite label_remove_node. destruct (N.eqb_spec n h) as [->|]; [contradiction|].
    rewrite label_set_node, (ii_lab _ _ _ I n Hn'), cnt_cons. simpl snd. rewrite (N.eqb_sym n m).
    destruct (N.eqb m n); destruct (label g n); reflexivity.
  - intros h' m' Hin. destruct (Hp h' m' (or_intror Hin)) as [Hh' _].
    unfold fold1. rewrite label_remove_node.
    destruct (N.eqb_spec h' h) as [->|]; [exfalso; apply Hhr, (in_map fst _ _ Hin)|].
    rewrite label_set_node. destruct (N.eqb_spec h' m) as [->|]; [contradiction|].
    apply (ii_h _ _ _ I h' m'). right. exact Hin.
  - intros u v. unfold fold1. rewrite adj_remove_node, adj_set_node, (ii_adj _ _ _ I). simpl. fold (padj Pr u v).
    destruct (N.eqb_spec u h) as [->|Hu]; simpl.
    + rewrite (Hpadj v), (adj_g_notin h v) by (left; exact Hh). reflexivity.
    + destruct (N.eqb_spec v h) as [->|Hv]; simpl.
      * rewrite padj_sym, (Hpadj u), (adj_g_notin u h) by (right; exact Hh). reflexivity.
      * assert (pair_eqb h m u v = false) as ->; [|reflexivity].
        destruct (pair_eqb h m u v) eqn:Pq; [|reflexivity]. apply pair_eqb_spec in Pq. destruct Pq as [[? ?]|[? ?]]; congruence.
  - unfold fold1, remove_node. simpl. apply uniq_filter. exact (ii_uq _ _ _ I).
Qed.

Lemma himp_fold_round Pr : forall G Pd, IInv G Pd Pr -> P_ok g Pr ->
  (forall h m a, In (h, m) Pr -> label g m = Some a -> el_is_H a = false) ->
  let F := fold_left himp_step (map fst Pr) G in
  node_ids F = ids /\
  (forall n, In n ids -> label F n = option_map (fun a => iter_inc (cnt n Pr + cnt n Pd) (base n a)) (label g n)) /\
  (forall u v, adj F u v = adj g u v).
Proof.
  induction Pr as [|[h m] Pr IH]; intros G Pd I HP Hpar; cbn [map fold_left fst].
  - cbv zeta. split; [rewrite (ii_ids _ _ _ I); apply app_nil_r|split].
    + intros n Hn. apply (ii_lab _ _ _ I n Hn).
    + intros u v. rewrite (ii_adj _ _ _ I). reflexivity.
  - destruct (himp_at G Pd h m Pr I HP (fun a La => Hpar h m a (or_introl eq_refl) La)) as [E I']. rewrite E.
    assert (P_ok g Pr) as HPr.
    { destruct HP as [Hnd Hp]. split; [inversion Hnd; assumption|]. intros h' m' Hin. apply Hp. right. exact Hin. }
    destruct (IH _ _ I' HPr) as (A & B & C); [intros h' m' a Hin; apply (Hpar h' m' a); right; exact Hin|].
    cbv zeta. split; [exact A|split; [|exact C]].
    intros n Hn. rewrite (B n Hn), !cnt_cons. simpl snd.
    replace (cnt n Pr + ((if N.eqb m n then 1 else 0) + cnt n Pd))%nat with ((if N.eqb m n then 1 else 0) + cnt n Pr + cnt n Pd)%nat by lia.
    reflexivity.
Qed.
End Implicit.

Lemma iter_inc_some k el ar z ch am t :
  iter_inc k (NA el ar (Some z) ch am t) = NA el ar (Some (z + Z.of_nat k)) ch am t.
Proof.
  induction k as [|k IH]; [simpl; rewrite Z.add_0_r; reflexivity|].
  cbn [iter_inc]. rewrite IH. unfold inc_h. simpl. f_equal. f_equal. lia.
Qed.
Lemma iter_lowered its a : iter_inc (Z.to_nat (hexp_count its a)) (h_lowered_gen its a) = h_restore_gen its a.
Proof.
  unfold h_lowered_gen, h_restore_gen. cbv zeta. destruct (Z.ltb_spec 0 (hexp_count its a)) as [Hc|Hc].
  - destruct a as [el ar hc ch am tg].
    assert (exists z, hc = Some z) as [z ->].
    { destruct hc as [z|]; [eauto|]. exfalso. unfold hexp_count in Hc. simpl in Hc.
      destruct its; [destruct tg as [[[[[e a1] h1] q1] [[[e2 a2] h2] q2]]|]|]; simpl in Hc; lia. }
    set (c := hexp_count its (NA el ar (Some z) ch am tg)) in *.
    destruct its; unfold dec_h_its, dec_h; simpl; rewrite iter_inc_some; f_equal; f_equal; lia.
  - destruct (hexp_count its a); try reflexivity; lia.
Qed.


Lemma fold_himp_id l : forall G : gr, (forall h, In h l -> heavy_nbrs G h = []) -> fold_left himp_step l G = G.
Proof.
  induction l as [|h t IH]; intros G H; [reflexivity|]. cbn [fold_left]. rewrite (himp_step_none G h (H h (or_introl eq_refl))).
  apply IH. intros h' Hh'. apply H. right. exact Hh'.
Qed.

(** on every networkx graph whose hydrogens are bare, for any node list, in either mode: the hydrogens of g are visited first and
    left alone (all their neighbours are hydrogens), then every added hydrogen is folded back into its atom *)
Theorem h_roundtrip_core (g : gr) (nodes : option (list N)) (its : bool) : gwf g -> bare_H g ->
  let g' := h_to_implicit (fst (hexp_loop g nodes its)) in
  node_ids g' = node_ids g /\
  (forall n a, label g n = Some a ->
     label g' n = Some (if mem n (exp_nodes g nodes) then h_restore_gen its a else a)) /\
  (forall u v, adj g' u v = adj g u v).
Proof.
  intros W Hbare. destruct (hexp_run g nodes its W) as (P & IE & HP & LE & CE).
  set (ns := exp_nodes g nodes) in *. set (E := fst (hexp_loop g nodes its)) in *.
  set (base := fun (n : N) (a : natt) => if mem n ns then h_lowered_gen its a else a).
  assert (forall n a, el_is_H (base n a) = el_is_H a) as base_el.
  { intros n a. unfold base. destruct (mem n ns); [apply el_lowered|reflexivity]. }
  (* hydrogens of g are never expanded: they are the atom of no added hydrogen *)
  assert (forall h m a, In (h, m) P -> label g m = Some a -> el_is_H a = false) as Hpar.
  { intros h m a Hin La. destruct (el_is_H a) eqn:Ha; [|reflexivity]. pose proof (in_cnt_pos h m P Hin) as Hc.
    rewrite (CE m a La) in Hc. pose proof (hexp_count_le its a (proj1 (Hbare m a La Ha))).
    destruct (mem m ns); [destruct (hexp_count its a); simpl in Hc|]; lia. }
  assert (forall n, In n (node_ids g) -> label (copy E) n = option_map (base n) (label g n)) as LE'.
  { intros n Hn. rewrite label_copy. apply has_node_in, has_node_label in Hn. destruct Hn as [a La]. rewrite La. apply (LE n a La). }
  assert (IInv g base (copy E) [] P) as II.
  { split.
    - exact (ei_ids _ _ _ _ IE).
    - exact LE'.
    - intros h m Hin. rewrite label_copy. apply (ei_h _ _ _ _ IE h m Hin).
    - intros u v. rewrite adj_copy by exact (ei_wf _ _ _ _ IE). apply (ei_adj _ _ _ _ IE).
    - apply (gwf_uq _ (gwf_copy E (ei_wf _ _ _ _ IE))). }
  assert (forall n, In n (node_ids g) -> is_H (copy E) n = is_H g n) as HisH.
  { intros n Hn. unfold is_H. rewrite (LE' n Hn). destruct (label g n) as [a|]; [apply base_el|reflexivity]. }
  assert (filter (is_H (copy E)) (node_ids (copy E)) = filter (is_H g) (node_ids g) ++ map fst P) as Hhs.
  { change (node_ids (copy E)) with (node_ids E). rewrite (ei_ids _ _ _ _ IE), filter_app. f_equal.
    - apply filter_ext_in. exact HisH.
    - apply filter_all. intros h Hh. apply in_map_iff in Hh. destruct Hh as ([h' m] & <- & Hin). unfold is_H. simpl fst.
      rewrite label_copy, (proj1 (ei_h _ _ _ _ IE h' m Hin)). reflexivity. }
  assert (fold_left himp_step (filter (is_H g) (node_ids g)) (copy E) = copy E) as Hold.
  { apply fold_himp_id. intros h Hh. apply filter_In in Hh. destruct Hh as [Hh HH].
    apply is_H_label in HH. destruct HH as (a & La & Ha).
    unfold heavy_nbrs. apply filter_none. intros w Hw0. apply negb_false_iff.
    apply in_nbrs_adj in Hw0. rewrite adj_copy, (ei_adj _ _ _ _ IE) in Hw0 by exact (ei_wf _ _ _ _ IE).
    destruct (padj P h w) eqn:Pa.
    - exfalso. unfold padj in Pa. apply existsb_exists in Pa. destruct Pa as ([h' m'] & Hin & Pq).
      destruct (proj2 HP h' m' Hin) as [Hh' _]. apply pair_eqb_spec in Pq. simpl in Pq. destruct Pq as [[-> _]|[_ ->]].
      + contradiction.
      + rewrite (Hpar h' h a Hin La) in Ha. discriminate.
    - pose proof (proj2 (Hbare h a La Ha) w Hw0) as HwH. rewrite HisH; [exact HwH|].
      apply is_H_label in HwH. destruct HwH as (b & Lb & _). apply has_node_in, has_node_label. eauto. }
  unfold h_to_implicit. cbv zeta. rewrite Hhs, fold_left_app, Hold.
  destruct (himp_fold_round g W base base_el P (copy E) [] II HP Hpar) as (A & B & C). cbv zeta in A, B, C.
  split; [exact A|split; [|exact C]].
  intros n a La. assert (In n (node_ids g)) as Hn by (apply has_node_in, has_node_label; eauto).
  rewrite (B n Hn), La. simpl. rewrite Nat.add_0_r, (CE n a La). unfold base.
  destruct (mem n ns); [rewrite iter_lowered|]; reflexivity.
Qed.

Lemma h_to_explicit_loop (g : gr) (nodes : option (list N)) its : h_to_explicit g nodes its = fin_graph its (fst (hexp_loop g nodes its)).
Proof. reflexivity. Qed.
(** at its=False the either-mode vocabulary is the plain one, by computation *)
Lemma h_restore_gen_false a : h_restore_gen false a = h_restore a.
Proof. reflexivity. Qed.
Lemma h_lowered_gen_false a : h_lowered_gen false a = h_lowered a.
Proof. reflexivity. Qed.

Theorem h_roundtrip_nodes (g : gr) (nodes : option (list N)) : gwfb g = true -> no_H g = true ->
  let g' := h_to_implicit (h_to_explicit g nodes false) in
  node_ids g' = node_ids g /\
  (forall n a, label g n = Some a ->
     label g' n = Some (if mem n (exp_nodes g nodes) then h_restore a else a)) /\
  (forall u v, adj g' u v = adj g u v).
Proof.
  intros Hw Hh. cbv zeta. rewrite h_to_explicit_loop. unfold fin_graph.
  destruct (h_roundtrip_core g nodes false (gwfb_gwf g Hw) (no_H_bare g Hh)) as (A & B & C).
  split; [exact A|split; [|exact C]]. intros n a La. rewrite (B n a La), h_restore_gen_false. reflexivity.
Qed.

Theorem h_roundtrip (g : gr) : gwfb g = true -> no_H g = true ->
  let g' := h_to_implicit (h_to_explicit g None false) in
  node_ids g' = node_ids g /\
  (forall n a, label g n = Some a -> label g' n = Some (h_restore a)) /\
  (forall u v, adj g' u v = adj g u v).
Proof.
  intros Hw Hh. destruct (h_roundtrip_nodes g None Hw Hh) as (A & B & C). cbv zeta in *. split; [exact A|split; [|exact C]].
  intros n a La. rewrite (B n a La). simpl.
  assert (mem n (node_ids g) = true) as -> by (apply mem_spec, has_node_in, has_node_label; eauto). reflexivity.
Qed.

(** molecule graphs (no typesGH), its=False: every node dictionary is restored exactly *)
Corollary h_roundtrip_bare_mol (g : gr) (nodes : option (list N)) : gwfb g = true -> bare_H g -> no_tgh g = true ->
  let g' := h_to_implicit (h_to_explicit g nodes false) in
  node_ids g' = node_ids g /\ (forall n, label g' n = label g n) /\ (forall u v, adj g' u v = adj g u v).
Proof.
  intros Hw Hb Ht. destruct (h_roundtrip_core g nodes false (gwfb_gwf g Hw) Hb) as (A & B & C). cbv zeta in *.
  change (h_to_explicit g nodes false) with (fst (hexp_loop g nodes false)). split; [exact A|split; [|exact C]].
  intros n. destruct (label g n) as [a|] eqn:La.
  - rewrite (B n a La). f_equal. destruct (mem n (exp_nodes g nodes)); [|reflexivity].
    apply assoc_in in La. unfold no_tgh in Ht. rewrite forallb_forall in Ht. specialize (Ht _ La). simpl in Ht.
    unfold h_restore_gen. destruct a as [el ar hc ch am [t|]]; [discriminate|]. simpl. destruct (0 <? _); reflexivity.
  - apply has_node_false in La. apply has_node_false. apply not_true_is_false. intros E.
    apply has_node_in in E. rewrite A in E. apply has_node_in in E. congruence.
Qed.
Corollary h_roundtrip_mol (g : gr) : gwfb g = true -> no_H g = true -> no_tgh g = true ->
  let g' := h_to_implicit (h_to_explicit g None false) in
  node_ids g' = node_ids g /\ (forall n, label g' n = label g n) /\ (forall u v, adj g' u v = adj g u v).
Proof. intros Hw Hh. exact (h_roundtrip_bare_mol g None Hw (no_H_bare g Hh)). Qed.

(** the explicit direction keeps the heavy skeleton, for every networkx graph (explicit hydrogens allowed) *)
Theorem h_explicit_skeleton_core (g : gr) (nodes : option (list N)) (its : bool) : gwf g ->
  let E := fst (hexp_loop g nodes its) in
  (forall n a, label g n = Some a -> label E n = Some (if mem n (exp_nodes g nodes) then h_lowered_gen its a else a)) /\
  (forall u v, In u (node_ids g) -> In v (node_ids g) -> adj E u v = adj g u v) /\
  (forall h, In h (node_ids E) -> ~ In h (node_ids g) ->
     (max_id g < h)%N /\ label E h = Some H_att /\
     exists m, In m (node_ids g) /\ forall w, adj E h w = if N.eqb w m then Some e_single else None).
Proof.
  intros W. destruct (hexp_run g nodes its W) as (P & IE & HP & LE & _). cbv zeta.
  set (E := fst (hexp_loop g nodes its)) in *. split; [exact LE|split].
  - intros u v Hu Hv. rewrite (ei_adj _ _ _ _ IE). destruct (padj P u v) eqn:E1; [|reflexivity]. exfalso.
    unfold padj in E1. apply existsb_exists in E1. destruct E1 as ([h m] & Hin & Pq). simpl in Pq.
    destruct (proj2 HP h m Hin) as [Hh _]. apply pair_eqb_spec in Pq. destruct Pq as [[-> _]|[-> _]]; contradiction.
  - intros h Hh Hnot. rewrite (ei_ids _ _ _ _ IE) in Hh. apply in_app_iff in Hh. destruct Hh as [Hh|Hh]; [contradiction|].
    pose proof (ei_rng _ _ _ _ IE h Hh) as R.
    apply in_map_iff in Hh. destruct Hh as ([h' m] & <- & Hin). simpl fst in *.
    destruct (ei_h _ _ _ _ IE h' m Hin) as [L M]. split; [apply R|]. split; [exact L|]. exists m. split; [exact M|].
    intros w. rewrite (ei_adj _ _ _ _ IE). rewrite (adj_g_notin g W h' w) by (left; exact Hnot).
    destruct (N.eqb_spec w m) as [->|Hne].
    + assert (padj P h' m = true) as ->; [|reflexivity]. unfold padj. apply existsb_exists. exists (h', m). split; [exact Hin|apply pair_eqb_refl].
    + destruct (padj P h' w) eqn:E1; [|reflexivity]. exfalso. apply Hne.
      apply (NoDup_fst_inj P h' w m (proj1 HP)); [|exact Hin]. apply (padj_with_h g P h' w HP Hnot E1).
Qed.

Theorem h_explicit_skeleton_nodes (g : gr) (nodes : option (list N)) : gwfb g = true ->
  let E := h_to_explicit g nodes false in
  (forall n a, label g n = Some a -> label E n = Some (if mem n (exp_nodes g nodes) then h_lowered a else a)) /\
  (forall u v, In u (node_ids g) -> In v (node_ids g) -> adj E u v = adj g u v) /\
  (forall h, In h (node_ids E) -> ~ In h (node_ids g) ->
     (max_id g < h)%N /\ label E h = Some H_att /\
     exists m, In m (node_ids g) /\ forall w, adj E h w = if N.eqb w m then Some e_single else None).
Proof.
  intros Hw. cbv zeta. rewrite h_to_explicit_loop. unfold fin_graph.
  destruct (h_explicit_skeleton_core g nodes false (gwfb_gwf g Hw)) as (A & B & C).
  split; [|split; [exact B|exact C]]. intros n a La. rewrite (A n a La), h_lowered_gen_false. reflexivity.
Qed.

Theorem h_explicit_skeleton (g : gr) : gwfb g = true ->
  let E := h_to_explicit g None false in
  (forall n a, label g n = Some a -> label E n = Some (h_lowered a)) /\
  (forall u v, In u (node_ids g) -> In v (node_ids g) -> adj E u v = adj g u v) /\
  (forall h, In h (node_ids E) -> ~ In h (node_ids g) ->
     label E h = Some H_att /\
     exists m, In m (node_ids g) /\ forall w, adj E h w = if N.eqb w m then Some e_single else None).
Proof.
  intros Hw. destruct (h_explicit_skeleton_nodes g None Hw) as (A & B & C). cbv zeta in *. split; [|split; [exact B|]].
  - intros n a La. rewrite (A n a La). simpl.
    assert (mem n (node_ids g) = true) as -> by (apply mem_spec, has_node_in, has_node_label; eauto). reflexivity.
  - intros h H1 H2. destruct (C h H1 H2) as (_ & L & M). auto.
Qed.

(** ** non-vacuity, and the case outside the domain *)
Example h_roundtrip_ex :
  gwfb ex_methylamine = true /\ no_H ex_methylamine = true /\ no_tgh ex_methylamine = true /\
  List.length (gnodes (h_to_explicit ex_methylamine None false)) = 7%nat /\
  gnodes (h_to_implicit (h_to_explicit ex_methylamine None false)) = gnodes ex_methylamine.
Proof. vm_compute. auto. Qed.
(** with typesGH the reactant-half hcount stays lowered: [h_restore] is not the identity there *)
Definition ex_tgh : gr :=
  LG [(1%N, NA (Some (s2l "C")) (Some false) (Some 2) (Some 0) (Some 1) (Some ((s2l "C", false, 2, 0), (s2l "C", false, 1, 0))))] [].
Example h_roundtrip_tgh_ex :
  gwfb ex_tgh = true /\ no_H ex_tgh = true /\
  option_map a_tgh (label (h_to_implicit (h_to_explicit ex_tgh None false)) 1%N)
  = Some (Some ((s2l "C", false, 0, 0), (s2l "C", false, 1, 0))) /\
  option_map a_hc (label (h_to_implicit (h_to_explicit ex_tgh None false)) 1%N) = Some (Some 2).
Proof. vm_compute. auto. Qed.
(** outside the domain (a hydrogen already explicit) the round trip folds that hydrogen too: the graph is not
    restored, only the molecule and the total count are *)
Example h_roundtrip_outside :
  no_H ex_ch4_partial = false /\
  node_ids (h_to_implicit (h_to_explicit ex_ch4_partial None false)) = [5%N] /\
  total_h (h_to_implicit (h_to_explicit ex_ch4_partial None false)) = total_h ex_ch4_partial.
Proof. vm_compute. auto. Qed.
Example h_explicit_skeleton_ex :
  gwfb ex_ch4_partial = true /\
  label (h_to_explicit ex_ch4_partial None false) 5%N = Some (mk "C" 0) /\
  node_ids (h_to_explicit ex_ch4_partial None false) = [5; 7; 8; 9; 10]%N.
Proof. vm_compute. auto. Qed.

(** ** the implicit direction keeps the heavy skeleton, for every networkx graph (any hydrogens, also outside h_dom) *)
Lemma fold_inc_label l : forall (G : gr) n,
  match label (fold_left (fun acc x => set_node acc x inc_h) l G) n, label G n with
  | Some a', Some a => same_but_hc a' a
  | None, None => True
  | _, _ => False
  end.
Proof.
  induction l as [|x r IH]; intros G n; simpl.
  - destruct (label G n) as [a|]; [unfold same_but_hc; auto 10|exact Logic.I].
  - specialize (IH (set_node G x inc_h) n). rewrite label_set_node in IH.
    destruct (label (fold_left _ r (set_node G x inc_h)) n) as [a'|]; destruct (N.eqb n x); destruct (label G n) as [a|];
      simpl in IH; exact IH.
Qed.

Lemma gedges_fold_inc l : forall G : gr, gedges (fold_left (fun acc x => set_node acc x inc_h) l G) = gedges G.
Proof. induction l as [|y r IH]; intros G; [reflexivity|]. simpl. rewrite IH. reflexivity. Qed.

Theorem h_implicit_skeleton (g : gr) : gwfb g = true ->
  let F := h_to_implicit g in
  (forall n a, label g n = Some a -> el_is_H a = false -> exists a', label F n = Some a' /\ same_but_hc a' a) /\
  (forall u v, is_H g u = false -> is_H g v = false -> adj F u v = adj g u v).
Proof.
  intros Hw. pose proof (gwfb_gwf g Hw) as W. intros F. unfold F, h_to_implicit. cbv zeta.
  set (hs := filter (is_H (copy g)) (node_ids (copy g))).
  assert (forall h, In h hs -> is_H g h = true) as Hhs by (intros h Hin; apply filter_In in Hin; apply Hin).
  assert (forall G,
            (forall n a, label g n = Some a -> el_is_H a = false -> exists a', label G n = Some a' /\ same_but_hc a' a) ->
            (forall u v, is_H g u = false -> is_H g v = false -> adj G u v = adj g u v) ->
            (forall n a, label g n = Some a -> el_is_H a = false ->
               exists a', label (fold_left himp_step hs G) n = Some a' /\ same_but_hc a' a) /\
            (forall u v, is_H g u = false -> is_H g v = false -> adj (fold_left himp_step hs G) u v = adj g u v)) as Hfold.
  { induction hs as [|h r IH]; intros G HL HA; [split; assumption|]. cbn [fold_left].
    apply IH; [intros h' Hh'; apply Hhs; right; exact Hh'| |].
    - intros n a La Hel. destruct (HL n a La Hel) as (a1 & L1 & S1). unfold himp_step.
      destruct (filter _ (nbrs G h)) as [|x l] eqn:E; [eauto|].
      assert (n <> h) as Hnh.
      { intros ->. pose proof (Hhs h (or_introl eq_refl)) as HH. unfold is_H in HH. rewrite La, Hel in HH. discriminate. }
      rewrite label_remove_node. destruct (N.eqb_spec n h); [contradiction|].
      pose proof (fold_inc_label (x :: l) G n) as FI. rewrite L1 in FI.
      match type of FI with match ?X with _ => _ end => destruct X as [a2|] end; [|contradiction]. exists a2. split; [reflexivity|].
      destruct FI as (F1 & F2 & F3 & F4 & F5). destruct S1 as (S1 & S2 & S3 & S4 & S5). repeat split; congruence.
    - intros u v Hu Hv. rewrite <- (HA u v Hu Hv). unfold himp_step.
      destruct (filter _ (nbrs G h)) as [|x l] eqn:E; [reflexivity|].
      rewrite adj_remove_node.
      assert (u <> h /\ v <> h) as [Huh Hvh].
      { pose proof (Hhs h (or_introl eq_refl)) as HH. split; intros ->; congruence. }
      destruct (N.eqb_spec u h); [contradiction|]. destruct (N.eqb_spec v h); [contradiction|]. simpl.
      unfold adj. rewrite gedges_fold_inc. reflexivity. }
  apply Hfold.
  - intros n a La _. exists a. split; [rewrite label_copy; exact La|repeat split].
  - intros u v _ _. apply adj_copy. exact W.
Qed.

Example h_implicit_skeleton_ex :
  gwfb ex_bridge = true /\ h_dom (copy ex_bridge) = false /\
  option_map a_el (label (h_to_implicit ex_bridge) 1%N) = Some (Some (s2l "B")) /\ node_ids (h_to_implicit ex_bridge) = [1; 3]%N.
Proof. vm_compute. repeat split. Qed.

(** ** [h_dom] does not depend on the adjacency order: on a networkx graph it can be evaluated on g itself *)
Lemma heavy_nbrs_copy_perm (g : gr) h : gwf g -> Permutation (heavy_nbrs (copy g) h) (heavy_nbrs g h).
Proof.
  intros W. apply NoDup_Permutation.
  - unfold heavy_nbrs. apply NoDup_filter, NoDup_nbrs, (gwf_uq _ (gwf_copy g W)).
  - unfold heavy_nbrs. apply NoDup_filter, NoDup_nbrs, (gwf_uq g W).
  - intros w. unfold heavy_nbrs. rewrite !filter_In, !in_nbrs_adj, adj_copy by exact W.
    unfold is_H. rewrite label_copy. reflexivity.
Qed.
Lemma forallb_ext' {A} (f g : A -> bool) l : (forall x, f x = g x) -> forallb f l = forallb g l.
Proof. intros H. induction l as [|x r IH]; simpl; [reflexivity|]. rewrite H, IH. reflexivity. Qed.
Lemma h_dom_copy (g : gr) : gwf g -> h_dom (copy g) = h_dom g.
Proof.
  intros W. unfold h_dom. change (gnodes (copy g)) with (gnodes g). apply forallb_ext'. intros [n a].
  unfold h_ok_node. simpl. f_equal. f_equal.
  pose proof (heavy_nbrs_copy_perm g n W) as P.
  destruct (heavy_nbrs (copy g) n) as [|x [|y r]] eqn:E1; destruct (heavy_nbrs g n) as [|x' [|y' r']] eqn:E2;
    try reflexivity; try (apply Permutation_length in P; simpl in P; discriminate).
  apply Permutation_length_1 in P. subst. reflexivity.
Qed.

Corollary h_total_implicit_wf (g : gr) : gwfb g = true -> h_dom g = true -> total_h (h_to_implicit g) = total_h g.
Proof.
  intros Hw Hd. pose proof (gwfb_gwf g Hw) as W. apply h_total_implicit; [exact (gwf_nd g W)|].
  rewrite h_dom_copy by exact W. exact Hd.
Qed.

Example h_total_implicit_wf_ex :
  gwfb ex_ch4_partial = true /\ h_dom ex_ch4_partial = true /\ total_h (h_to_implicit ex_ch4_partial) = 4.
Proof. vm_compute. repeat split. Qed.

(** staged use: only atom 1 of CH3-NH2 is expanded; the three new hydrogens are numbered 3, 4, 5 — above EVERY id of
    the graph, not above the ids of the selected atoms — and folding them back restores the graph *)
Example h_roundtrip_nodes_ex :
  node_ids (h_to_explicit ex_methylamine (Some [1%N]) false) = [1; 2; 3; 4; 5]%N /\
  option_map a_hc (label (h_to_explicit ex_methylamine (Some [1%N]) false) 2%N) = Some (Some 2) /\
  gnodes (h_to_implicit (h_to_explicit ex_methylamine (Some [1%N]) false)) = gnodes ex_methylamine /\
  gnodes (h_to_implicit (h_to_explicit (h_to_explicit ex_methylamine (Some [1%N]) false) (Some [2%N]) false))
  = gnodes ex_methylamine.
Proof. vm_compute. repeat split. Qed.
