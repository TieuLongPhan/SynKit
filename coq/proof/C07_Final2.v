(** C07 — completeness and the max_mappings slice of get_mappings for the cached functions the correspondence runs; an edit of an
    uncached object; examples for proof/C07_Extra.v. *)
From Coq Require Import List NArith Lia.
From SK Require Import lib.Tok lib.LGraph model.C07_Model
  proof.C07_Spec proof.C07_History proof.C07_Main proof.C07_Final proof.C07_Extra
  proof.C07_Examples.
Import ListNotations.

Section Final2.
Variable vf2b : bool -> (attrs -> attrs -> bool) -> (attrs -> attrs -> bool) -> graph -> graph -> bool.
Variable enum : (attrs -> attrs -> bool) -> (attrs -> attrs -> bool) -> graph -> graph -> list mapping.

Theorem embeddings_complete : enum_complete enum ->
  forall gs e hi pi c, cache_inv gs c -> gwf (gnth gs hi) -> gwf (gnth gs pi) ->
    e_mm e = None -> shortcut (gnth gs hi) (gnth gs pi) = false ->
    NoDup (fst (get_mappings vf2b enum e hi (gnth gs hi) pi (gnth gs pi) c)) /\
    (forall f, emb true (nm_eng e) (em_eng e) (gnth gs hi) (gnth gs pi) f ->
       exists m, In m (fst (get_mappings vf2b enum e hi (gnth gs hi) pi (gnth gs pi) c)) /\
                 forall u, In u (node_ids (gnth gs pi)) -> mfun m u = f u).
Proof.
  intros EC gs e hi pi c Hc WH WP Hmm Hs. rewrite maps_fst; auto.
  apply (get_mappings_complete vf2b enum EC); auto.
Qed.

Theorem max_mappings_slice :
  forall gs e k hi pi c c', cache_inv gs c -> cache_inv gs c' ->
    (shortcut (gnth gs hi) (gnth gs pi) = false \/ (1 <= N.to_nat k)%nat) ->
    fst (get_mappings vf2b enum (set_mm e (Some k)) hi (gnth gs hi) pi (gnth gs pi) c) =
    firstn (N.to_nat k) (fst (get_mappings vf2b enum (set_mm e None) hi (gnth gs hi) pi (gnth gs pi) c')).
Proof. intros gs e k hi pi c c' Hc Hc' D. rewrite !maps_fst; auto. apply get_mappings_slice. exact D. Qed.
End Final2.

Definition gE : graph := LG [] [].
Lemma wf_gE : gwf gE. Proof. apply gwfb_sound. vm_compute. reflexivity. Qed.

(** two EMPTY graphs are isomorphic: find_graph_isomorphism returns a mapping (the empty dict, which is falsy in Python but not None) *)
Example ex_fgi_empty : fgi has_mono true true 9 3 5 gE gE = true /\ exists f, iso_map (fgi_nm true 9 3) (fgi_em true 5) gE gE f.
Proof.
  split; [vm_compute; reflexivity|].
  apply (fgi_spec has_mono has_mono_contract true true 9 3 5 gE gE wf_gE wf_gE). vm_compute. reflexivity.
Qed.
Example ex_fgi_degree : fgi_fast gCOC gCOC = true /\ fgi has_mono false true 9 3 5 gCO gCOC = false.
Proof. split; vm_compute; reflexivity. Qed.

(** completeness: C-O in C-O-C, unlimited: both embeddings, no duplicate; max_mappings = 1: the first of them *)
Example ex_complete : NoDup mapsEx /\ length mapsEx = 2%nat.
Proof.
  split; [|vm_compute; reflexivity].
  apply (embeddings_complete has_mono (monos_g true) monos_g_complete_contract gsA eFull 3 0 [] (cache_inv_nil gsA)
           wf_gCOC wf_gCO eq_refl). vm_compute. reflexivity.
Qed.
Example ex_slice :
  fst (get_mappings has_mono (monos_g true) (set_mm eFull (Some 1%N)) 3 (gnth gsA 3) 0 (gnth gsA 0) []) = firstn 1 mapsEx.
Proof.
  apply (max_mappings_slice has_mono (monos_g true) gsA eFull 1%N 3 0 [] [] (cache_inv_nil gsA) (cache_inv_nil gsA)).
  left. vm_compute. reflexivity.
Qed.

(** an in-place edit makes the cache stale for filtering engines (documented by the class) but not for the others:
    C-O vs C-[O-] queried by the charge-aware filtering engine, then object 2 edited into C-O *)
Definition eNoWL : engine := set_wl eFull false.
Definition histEd : list hstep := [HQ (QIso 0 0 2); HEdit 2 1; HQ (QIso 0 0 2)].
Definition verdict_of (t : tok) : tok := match t with L (x :: _) => x | _ => t end.
Example ex_edit_stale : map verdict_of (fst (run_hist has_mono (monos_g true) gsA gsA [eFull] histEd [])) = [tbool false; tbool false]
                        /\ map verdict_of (hist_pure has_mono (monos_g true) gsA gsA [eFull] histEd) = [tbool false; tbool true].
Proof. split; vm_compute; reflexivity. Qed.
Example ex_edit_wl_off : map verdict_of (fst (run_hist has_mono (monos_g true) gsA gsA [eNoWL] histEd [])) = [tbool false; tbool true].
Proof.
  rewrite (edits_wl_off has_mono (monos_g true) gsA [eNoWL] histEd); [vm_compute; reflexivity|].
  repeat constructor.
Qed.

Lemma edit_stale_witness : exists gs es hs,
  fst (run_hist has_mono (monos_g true) gs gs es hs []) <> hist_pure has_mono (monos_g true) gs gs es hs.
Proof.
  exists gsA, [eFull], histEd. destruct ex_edit_stale as (A & B). intros E. rewrite E, B in A. discriminate.
Qed.

(** an in-place edit of an object that has no cache entry (never queried by a filtering engine) is harmless for every engine:
    all later answers are the fresh answers on the new graph values *)
Theorem edit_uncached vf2b enum gs es i g' c qs : cache_inv gs c -> (forall na, cache_get (i, na) c = None) -> (i < length gs)%nat ->
  run_from vf2b enum (set_nth gs i g') es qs c = map (fun q => fst (step vf2b enum (set_nth gs i g') es q [])) qs.
Proof.
  intros Hc Hn _. apply (no_history vf2b enum (set_nth gs i g') es qs c), uncached_edit_keeps_inv; auto.
Qed.

(** custom comparators (the subject of repair f37bdec): child *-O (order 2) in parent C-O (order 1) with a wildcard node comparator
    and an accept-all edge comparator — contained, and the filter, which uses the same comparators, agrees *)
Definition aStar : attrs := [(1, 9); (2, 3)]%N.
Definition gSO : graph := LG [(1, aStar); (2, aO)]%N [(1, 2, [(4, 6)])]%N.
Lemma wf_gSO : gwf gSO. Proof. apply gwfb_sound. vm_compute. reflexivity. Qed.
Example ex_custom_comparators :
  sub_iso has_mono true true (CWild 9) CAny namesEC (Some 4%N) gSO gCO = true /\
  sub_iso has_mono false true CEq CEq namesEC (Some 4%N) gSO gCO = false /\
  contained true (nm_subc (CWild 9) namesEC) (em_subc CAny (Some 4%N)) gCO gSO.
Proof.
  split; [vm_compute; reflexivity|]. split; [vm_compute; reflexivity|].
  apply (sub_iso_spec has_mono has_mono_contract true true (CWild 9) CAny namesEC (Some 4%N) gSO gCO wf_gSO wf_gCO). vm_compute. reflexivity.
Qed.

(** a NEW object instead of an in-place edit: same history as ex_edit_stale, but object 2 is REPLACED by a new object holding C-O
    (e.g. a copy of object 1): the filtering engine answers True — nothing cached for the old object 2 rides along *)
Definition histNew : list hstep := [HQ (QIso 0 0 2); HNew 2 1; HQ (QIso 0 0 2)].
Example ex_new_object : map verdict_of (fst (run_hist has_mono (monos_g true) gsA gsA [eFull] histNew [])) = [tbool false; tbool true].
Proof.
  rewrite (new_objects_harmless has_mono (monos_g true) gsA [eFull] histNew); [vm_compute; reflexivity | | apply cache_inv_nil].
  intros i k [E|[E|[E|[]]]]; discriminate.
Qed.

(** the general rule: the derived object (new object 2, value C-O) is edited in place BEFORE any filtering engine sees it: harmless;
    the stale history of ex_edit_stale does not satisfy the premise *)
Definition histSafe : list hstep := [HQ (QIso 0 0 2); HNew 2 2; HEdit 2 1; HQ (QIso 0 0 2)].
Example ex_safe_edits : map verdict_of (fst (run_hist has_mono (monos_g true) gsA gsA [eFull] histSafe [])) = [tbool false; tbool true]
                        /\ ~ edits_uncached has_mono (monos_g true) gsA gsA [eFull] histEd [].
Proof.
  split.
  - rewrite (safe_edits_harmless has_mono (monos_g true) gsA [eFull] histSafe gsA [] (cache_inv_nil gsA)); [vm_compute; reflexivity|].
    simpl. split; [intros na; vm_compute; reflexivity | exact Logic.I].
  - simpl. intros (Hn & _). specialize (Hn [1; 2]%N). vm_compute in Hn. discriminate.
Qed.
