(** C09 — back-end wl: when the WL colours of corresponding atoms correspond and are pairwise distinct, the canonical
    ids of corresponding atoms coincide (this discharges the invariance premise of C09_numbering_independent_given_invariance
    for wl; "WL colours are invariant under renaming" is networkx's contract: premise). *)
From Coq Require Import List NArith ZArith Bool Arith Lia Permutation.
From SK Require Import lib.LGraph lib.C01_GraphLemmas model.C01_Model model.C09_Model
  proof.C09_Lists proof.C09_Canon proof.C09_Equiv proof.C09_Main proof.C09_Indep proof.C09_Graph.
From SK Require model.C08_Model proof.C08_Sort lib.IRInst.
Import ListNotations.

Notation lexleb := IRInst.lexleb.

(** the insertion sort only looks at comparisons *)
Lemma insert_by_ext {A} (k k' : A -> list Z) x l :
  (forall y, In y l -> lexleb (k x) (k y) = lexleb (k' x) (k' y)) -> C08_Model.insert_by k x l = C08_Model.insert_by k' x l.
Proof.
  induction l as [|y r IH]; simpl; intros Hc; [reflexivity|].
  rewrite (Hc y (or_introl eq_refl)). destruct (lexleb (k' x) (k' y)); [reflexivity|]. f_equal. apply IH. intros z I. apply Hc. right. exact I.
Qed.
Lemma sort_by_ext {A} (k k' : A -> list Z) l :
  (forall x y, In x l -> In y l -> lexleb (k x) (k y) = lexleb (k' x) (k' y)) -> C08_Model.sort_by k l = C08_Model.sort_by k' l.
Proof.
  induction l as [|x l IH]; simpl; intros Hc; [reflexivity|].
  rewrite IH by (intros a b Ia Ib; apply Hc; right; assumption).
  apply insert_by_ext. intros y I. apply Hc; [left; reflexivity|right]. apply (C08_Sort.sort_by_in k' l y). exact I.
Qed.

Lemma lexleb_head (a b : Z) (r s r' s' : list Z) : a <> b -> lexleb (a :: r) (b :: s) = lexleb (a :: r') (b :: s').
Proof. intros Hne. simpl. destruct (Z.ltb_spec a b); [reflexivity|]. destruct (Z.ltb_spec b a); [reflexivity|]. lia. Qed.

Lemma combine_map_l {Y} (p : N -> N) (l : list N) : forall vals : list Y, combine (map p l) vals = map (fun q => (p (fst q), snd q)) (combine l vals).
Proof. induction l as [|x l IH]; intros [|v vals]; simpl; auto. f_equal. apply IH. Qed.
Lemma sigma_of_map (p : N -> N) (Pinj : forall a b, p a = p b -> a = b) order n : sigma_of (map p order) (p n) = sigma_of order n.
Proof.
  unfold sigma_of, C08_Model.apply_map, C08_Model.mapping_of. rewrite map_length, combine_map_l.
  rewrite (assoc_map_key Pinj). reflexivity.
Qed.

Definition wl_key (ranks : list (N * Z)) (G : mgraph) (v : N) : list Z :=
  [C08_Model.rank_of ranks v; C08_Model.degree (to_c08 G) v; Z.of_N v].

Theorem wl_order_renamed (ranks1 ranks2 : list (N * Z)) (G G2 : mgraph) (p : N -> N) :
  (forall a b, p a = p b -> a = b) -> NoDup (node_ids G) ->
  Permutation (node_ids G2) (map p (node_ids G)) ->
  (forall n, In n (node_ids G) -> C08_Model.rank_of ranks2 (p n) = C08_Model.rank_of ranks1 n) ->
  (forall x y, In x (node_ids G) -> In y (node_ids G) -> C08_Model.rank_of ranks1 x = C08_Model.rank_of ranks1 y -> x = y) ->
  wl_order ranks2 G2 = map p (wl_order ranks1 G).
Proof.
  intros Pinj Hnd P Hr Hd. unfold wl_order. cbv zeta. rewrite !node_ids_to_c08.
  fold (wl_key ranks2 G2). fold (wl_key ranks1 G).
  rewrite (C08_Sort.sort_by_perm_eq (wl_key ranks2 G2) (node_ids G2) (map p (node_ids G)) P).
  - rewrite C08_Sort.sort_by_map. f_equal. apply sort_by_ext. intros x y Ix Iy.
    destruct (N.eq_dec x y) as [->|Hne]; [rewrite !C08_Sort.lexleb_refl; reflexivity|].
    unfold wl_key. rewrite !Hr by assumption. apply lexleb_head. intros E. apply Hne. apply Hd; auto.
  - intros x y _ _ E. unfold wl_key in E. inversion E. apply N2Z.inj. assumption.
Qed.

Definition ranks_distinct (ranks : list (N * Z)) (G : mgraph) : Prop :=
  forall x y, In x (node_ids G) -> In y (node_ids G) -> C08_Model.rank_of ranks x = C08_Model.rank_of ranks y -> x = y.

(** the invariance premise for wl, for any presentation of the reactant graph *)
Theorem wl_invariance_sg (ranks1 ranks2 : list (N * Z)) (G G' : mgraph) (p : N -> N) :
  (forall a b, p a = p b -> a = b) -> wf G -> presents p G G' ->
  (forall n, In n (node_ids G) -> C08_Model.rank_of ranks2 (p n) = C08_Model.rank_of ranks1 n) ->
  ranks_distinct ranks1 G ->
  forall n, sigma_of (wl_order ranks2 G') (p n) = sigma_of (wl_order ranks1 G) n.
Proof.
  intros Pinj (Hnd & _) RG Hr Hd n.
  rewrite (wl_order_renamed ranks1 ranks2 G G' p Pinj Hnd); auto.
  - apply sigma_of_map. exact Pinj.
  - apply presents_node_ids. exact RG.
Qed.



(** numbering / atom-order independence of [canonicalise_wl] (what [run_canon_wl] evaluates) *)
Theorem numbering_independent_wl (ranks1 ranks2 : list (N * Z)) (G H G2' H2' : mgraph) (p : N -> N) :
  parsed G -> parsed H -> shares_atom G H ->
  (forall a b, p a = p b -> a = b) -> (forall n, In n (node_ids G) \/ In n (node_ids H) -> p n <> 0%N) ->
  keeps_extra_order p G H ->
  relabelled_by p G G2' -> relabelled_by p H H2' ->
  (forall n, In n (node_ids G) -> C08_Model.rank_of ranks2 (p n) = C08_Model.rank_of ranks1 n) -> ranks_distinct ranks1 G ->
  exists (pairs1 pairs2 : list (N * N)) (Gc1 Gc2 Hc1 Hc2 : mgraph),
    canonicalise_wl ranks1 G H = Some (Gc1, pairs1, Hc1) /\
    canonicalise_wl ranks2 (set_amap G2') (set_amap H2') = Some (Gc2, pairs2, Hc2) /\
    same_upto_order Gc2 Gc1 /\ same_upto_order Hc2 Hc1.
Proof.
  intros PG PH Hs Pinj Ppos Pmono RG2 RH2 Hr Hd. pose proof PG as (WG & _).
  assert (WG2 : wf (set_amap G2')) by (apply wf_set_amap; apply (rel_wf p Pinj G G2' WG RG2)).
  pose proof (wl_enumerates ranks1 G WG) as En1. pose proof (wl_enumerates ranks2 (set_amap G2') WG2) as En2.
  destruct (presentation_independent_mono G H G2' H2' (canon_rebuild (wl_order ranks1 G) G) (canon_rebuild (wl_order ranks2 (set_amap G2')) (set_amap G2'))
              (wl_order ranks1 G) (wl_order ranks2 (set_amap G2')) p PG PH Hs Pinj Ppos Pmono RG2 RH2 En1 (rebuild_relabelled _ G WG En1)
              En2 (rebuild_relabelled _ _ WG2 En2))
    as (pairs1 & pairs2 & Hc1 & Hc2 & E1 & E2 & S1 & S2).
  - intros n _. apply (wl_invariance_sg ranks1 ranks2 G (set_amap G2') p Pinj WG (relabelled_presents p G G2' RG2) Hr Hd).
  - exists pairs1, pairs2, (set_amap (canon_rebuild (wl_order ranks1 G) G)), (set_amap (canon_rebuild (wl_order ranks2 (set_amap G2')) (set_amap G2'))),
      (set_amap Hc1), (set_amap Hc2). unfold canonicalise_wl. auto.
Qed.

(** non-vacuity: CH3Br + OH- with three different colours; second presentation renumbered 1,2,7 -> 5,6,4 *)
Definition ex_ranks1 : list (N * Z) := [(1%N, 0%Z); (2%N, 2%Z); (7%N, 1%Z)].
Definition ex_ranks2 : list (N * Z) := [(5%N, 0%Z); (6%N, 2%Z); (4%N, 1%Z)].
Example ex_wl_hyps :
  ranks_distinct ex_ranks1 ex_G /\
  (forall n, In n (node_ids ex_G) -> C08_Model.rank_of ex_ranks2 (ex_ren n) = C08_Model.rank_of ex_ranks1 n) /\
  wl_order ex_ranks1 ex_G = [1%N; 7%N; 2%N] /\
  wl_order ex_ranks2 (set_amap (relabel ex_ren ex_G)) = map ex_ren (wl_order ex_ranks1 ex_G).
Proof.
  split; [|split; [|split]].
  - intros x y Ix Iy E. simpl in Ix, Iy. destruct Ix as [<-|[<-|[<-|[]]]]; destruct Iy as [<-|[<-|[<-|[]]]]; try reflexivity; vm_compute in E; discriminate.
  - intros n I. simpl in I. intuition (subst; reflexivity).
  - vm_compute. reflexivity.
  - vm_compute. reflexivity.
Qed.
