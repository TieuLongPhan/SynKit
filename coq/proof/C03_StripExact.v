(** C03 — WHICH atoms _strip_explicit_h removes, for templates whose atoms have the same element on both sides: exactly
    the explicit hydrogens that have a non-hydrogen neighbour on the left AND on the right side, all of them in step 2
    (in sorted order, pair ids 1, 2, ...), from all three graphs; step 3 removes nothing. *)
From Coq Require Import List NArith ZArith Bool.
From SK Require Import lib.Tok lib.LGraph model.C03_Model proof.C03_Proof proof.C03_Glue proof.C03_Backward proof.C03_Skeleton
                       proof.C03_StripCounts.
Import ListNotations.
Local Open Scope Z_scope.

(** * removable_on, as a boolean about non-hydrogen neighbours *)

Lemma removable_on_spec (g : molg) h : removable_on g h = if has_node g h then Some (heavy_nbr g h) else None.
Proof.
  unfold removable_on, heavy_nbr. destruct (has_node g h); [|reflexivity]. f_equal.
  destruct (nbrs g h) as [|x r]; [reflexivity|]. generalize (x :: r). intros l.
  induction l as [|y s IH]; simpl; [reflexivity|]. destruct (is_H_m g y); simpl; [exact IH|reflexivity].
Qed.

(** * neighbours in a graph with some atoms removed *)
Lemma nbrs_filtered (es : list (N * N * Z)) (R : list N) h : ~ In h R ->
  flat_map (fun e : N * N * Z => let '(a, b, _) := e in if N.eqb a h then [b] else if N.eqb b h then [a] else []) (filter (mkeepe R) es)
  = filter (fun x => negb (mem x R))
      (flat_map (fun e : N * N * Z => let '(a, b, _) := e in if N.eqb a h then [b] else if N.eqb b h then [a] else []) es).
Proof.
  intros Hh. assert (Hm : mem h R = false) by (apply mem_false; assumption).
  induction es as [|[[a b] o] r IH]; [reflexivity|]. cbn [filter flat_map]. rewrite filter_app, <- IH. unfold mkeepe at 1. cbn [fst snd].
  destruct (N.eqb_spec a h) as [->|Na].
  - rewrite Hm. cbn [negb andb filter]. destruct (mem b R); cbn [negb flat_map app]; [reflexivity|]. rewrite N.eqb_refl. reflexivity.
  - destruct (N.eqb_spec b h) as [->|Nb].
    + rewrite Hm. cbn [negb filter]. rewrite andb_true_r. destruct (mem a R); cbn [negb flat_map app]; [reflexivity|].
      destruct (N.eqb_spec a h); [contradiction|]. rewrite N.eqb_refl. reflexivity.
    + cbn [filter app]. destruct (negb (mem a R) && negb (mem b R)); cbn [flat_map app]; [|reflexivity].
      destruct (N.eqb_spec a h); [contradiction|]. destruct (N.eqb_spec b h); [contradiction|]. reflexivity.
Qed.

Lemma mskel_nbrs g0 g R h : mskel g0 g R -> ~ In h R -> nbrs g h = filter (fun x => negb (mem x R)) (nbrs g0 h).
Proof. intros [_ S2] Hh. unfold nbrs. rewrite S2. apply nbrs_filtered. exact Hh. Qed.

Lemma mskel_label g0 g R x : NoDup (node_ids g0) -> mskel g0 g R ->
  match label g x with
  | Some a => exists a0, label g0 x = Some a0 /\ m_el a = m_el a0 /\ ~ In x R
  | None => In x R \/ label g0 x = None
  end.
Proof.
  intros Hnd S. pose proof (mskel_ids g0 g R S) as Hids. destruct S as [S1 _].
  assert (Hnd' : NoDup (node_ids g)) by (rewrite Hids; apply NoDup_map_filter; exact Hnd).
  destruct (label g x) as [a|] eqn:El.
  - unfold label in El. apply assoc_in in El. destruct (Forall2_in_l _ _ _ _ S1 El) as ([k a0] & I & (E1 & E2 & _)).
    cbn [fst snd] in *. subst k. apply filter_In in I. destruct I as [I Hk]. exists a0.
    split; [apply assoc_nodup_in; assumption|]. split; [exact E2|]. unfold mkeepn in Hk. cbn [fst] in Hk.
    apply negb_true_iff in Hk. intros C. apply mem_spec in C. congruence.
  - destruct (label g0 x) as [a0|] eqn:E0; [|right; reflexivity]. left.
    destruct (mem x R) eqn:Em; [apply mem_spec; exact Em|]. exfalso.
    unfold label in E0. apply assoc_in in E0.
    assert (I : In x (node_ids g)).
    { rewrite Hids. apply in_map_iff. exists (x, a0). split; [reflexivity|]. apply filter_In. split; [exact E0|]. unfold mkeepn. cbn [fst]. rewrite Em. reflexivity. }
    unfold node_ids in I. apply in_map_iff in I. destruct I as ([k a] & E & I). cbn [fst] in E. subst k.
    unfold label in El. rewrite (assoc_nodup_in x (gnodes g) a Hnd' I) in El. discriminate.
Qed.

(** removing hydrogens (and bumping hydrogen counts) does not change whether an atom still has a non-hydrogen neighbour *)
Lemma heavy_nbr_stable g0 g R h : NoDup (node_ids g0) -> mskel g0 g R -> (forall x, In x R -> is_H_m g0 x = true) -> ~ In h R ->
  heavy_nbr g h = heavy_nbr g0 h.
Proof.
  intros Hnd S HR Hh. unfold heavy_nbr. rewrite (mskel_nbrs g0 g R h S Hh).
  induction (nbrs g0 h) as [|x r IH]; [reflexivity|]. cbn [filter existsb].
  destruct (mem x R) eqn:Em; cbn [negb].
  - apply mem_spec in Em. rewrite (HR x Em). cbn [negb orb]. exact IH.
  - cbn [existsb]. rewrite IH. f_equal. f_equal. unfold is_H_m.
    pose proof (mskel_label g0 g R x Hnd S) as L. destruct (label g x) as [a|].
    + destruct L as (a0 & E0 & Ee & _). rewrite E0, Ee. reflexivity.
    + destruct L as [L|L]; [apply mem_spec in L; congruence|rewrite L; reflexivity].
Qed.

Lemma has_node_mskel g0 g R h : NoDup (node_ids g0) -> mskel g0 g R -> has_node g h = has_node g0 h && negb (mem h R).
Proof.
  intros Hnd S. unfold has_node. pose proof (mskel_label g0 g R h Hnd S) as L. destruct (label g h) as [a|].
  - destruct L as (a0 & E0 & _ & Hn). rewrite E0, (mem_false h R Hn). reflexivity.
  - destruct L as [L|L]; [apply mem_spec in L; rewrite L; rewrite andb_false_r; reflexivity|rewrite L; reflexivity].
Qed.

Lemma fully_removable_stable l0 r0 l r Rl Rr h :
  NoDup (node_ids l0) -> NoDup (node_ids r0) -> mskel l0 l Rl -> mskel r0 r Rr ->
  (forall x, In x Rl -> is_H_m l0 x = true) -> (forall x, In x Rr -> is_H_m r0 x = true) -> ~ In h Rl -> ~ In h Rr ->
  fully_removable l r h = fully_removable l0 r0 h.
Proof.
  intros Nl Nr Sl Sr Hl Hr Hhl Hhr. unfold fully_removable. rewrite !removable_on_spec.
  rewrite (has_node_mskel l0 l Rl h Nl Sl), (has_node_mskel r0 r Rr h Nr Sr).
  assert (El : mem h Rl = false) by (apply mem_false; assumption).
  assert (Er : mem h Rr = false) by (apply mem_false; assumption).
  rewrite El, Er. cbn [negb]. rewrite !andb_true_r.
  rewrite (heavy_nbr_stable l0 l Rl h Nl Sl Hl Hhl), (heavy_nbr_stable r0 r Rr h Nr Sr Hr Hhr). reflexivity.
Qed.

(** * one strip step, exactly *)
Lemma mskel_mem_ext g0 g R R' : (forall x, mem x R = mem x R') -> sum_cnt (gedges g0) R = sum_cnt (gedges g0) R' -> mskel g0 g R -> mskel g0 g R'.
Proof.
  intros Hm Hs [S1 S2]. constructor.
  - rewrite <- Hs. rewrite (filter_ext_all (mkeepn R') (mkeepn R)) by (intros p; unfold mkeepn; rewrite Hm; reflexivity). exact S1.
  - rewrite S2. apply filter_ext_all. intros e. unfold mkeepe. rewrite !Hm. reflexivity.
Qed.

(** * the shared hydrogens *)
Definition sh_step (l r : molg) (n : N) (acc : option (list N)) : option (list N) :=
  match acc with
  | None => None
  | Some ns => if has_node r n then
                 match fully_removable l r n with
                 | Some true => Some (n :: ns) | Some false => Some ns | None => None end
               else Some ns
  end.
Lemma shared_h_unfold l r : shared_h l r = fold_right (sh_step l r) (Some []) (h_nodes_m l).
Proof. reflexivity. Qed.

Lemma sh_fold_spec l r ns : forall hs, fold_right (sh_step l r) (Some []) ns = Some hs ->
  (forall h, In h hs <-> In h ns /\ has_node r h = true /\ fully_removable l r h = Some true) /\ (NoDup ns -> NoDup hs).
Proof.
  induction ns as [|n ns IH]; cbn [fold_right]; intros hs H.
  - inversion H; subst. split; [intros h; simpl; tauto|constructor].
  - destruct (fold_right (sh_step l r) (Some []) ns) as [acc|] eqn:E; [|discriminate]. destruct (IH acc eq_refl) as [I1 I2].
    unfold sh_step in H. destruct (has_node r n) eqn:En.
    + destruct (fully_removable l r n) as [[|]|] eqn:Ef; inversion H; subst.
      * split.
        -- intros h. simpl. rewrite I1. split.
           ++ intros [Hx|(P & Q & S)]; [subst; auto|auto].
           ++ intros ([Hx|P] & Q & S); [left; exact Hx|right; auto].
        -- intros Hn. inversion Hn as [|? ? N1 N2]; subst. constructor; [|auto]. intros I. apply I1 in I. tauto.
      * split.
        -- intros h. simpl. rewrite I1. split.
           ++ intros (P & Q & S); auto.
           ++ intros ([Hx|P] & Q & S); [subst; congruence|auto].
        -- intros Hn. inversion Hn; subst. auto.
    + inversion H; subst. split.
      * intros h. simpl. rewrite I1. split.
        -- intros (P & Q & S); auto.
        -- intros ([Hx|P] & Q & S); [subst; congruence|auto].
      * intros Hn. inversion Hn; subst. auto.
Qed.

(** * membership of node ids *)
Lemma has_node_skel T0 g R h : skel T0 g R -> has_node T0 h = true -> ~ In h R -> has_node g h = true.
Proof.
  intros S Hh Hn. apply has_node_in. rewrite (skel_ids T0 g R S). apply has_node_in in Hh. unfold node_ids in Hh.
  apply in_map_iff in Hh. destruct Hh as ([k a] & E & I). cbn [fst] in E. subst k. apply in_map_iff. exists (h, a). split; [reflexivity|].
  apply filter_In. split; [exact I|]. unfold keepn. cbn [fst]. rewrite mem_false by assumption. reflexivity.
Qed.

(** * step 2, exactly: the same atoms leave all three graphs *)
Record inv3 (tpl : its) (L0 R0 : molg) (t : triple) (R : list N) : Prop := {
  i3_rc : skel tpl (fst (fst t)) R;
  i3_l : mskel L0 (tl_ t) R;
  i3_r : mskel R0 (tr_ t) R;
  i3_nl : NoDup (node_ids (tl_ t));
  i3_nr : NoDup (node_ids (tr_ t)) }.

Lemma inv3_strip tpl L0 R0 rc l rr R h pid : NoDup (node_ids L0) -> NoDup (node_ids R0) ->
  is_H_i tpl h = true /\ has_node tpl h = true /\ has_node L0 h = true /\ has_node R0 h = true -> ~ In h R ->
  inv3 tpl L0 R0 (rc, l, rr) R ->
  has_node rc h = true /\ inv3 tpl L0 R0 (strip_i rc h pid, strip_m l h pid, strip_m rr h pid) (h :: R).
Proof.
  intros NL NR (H1 & H2 & H3 & H4) HhR [I1 I2 I3 I4 I5]. unfold tl_, tr_ in *. cbn [fst snd] in *.
  assert (Em : mem h R = false) by (apply mem_false; assumption).
  assert (El : has_node l h = true) by (rewrite (has_node_mskel L0 l R h NL I2), H3, Em; reflexivity).
  assert (Er : has_node rr h = true) by (rewrite (has_node_mskel R0 rr R h NR I3), H4, Em; reflexivity).
  pose proof (has_node_skel tpl rc R h I1 H2 HhR) as Ec. split; [exact Ec|].
  constructor; unfold tl_, tr_; cbn [fst snd].
  - pose proof (skel_strip_i_exact tpl rc R h pid (fun _ => H1) I1) as S. rewrite Ec in S. exact S.
  - pose proof (mskel_strip_exact L0 l R h pid I4 I2) as S. rewrite El in S. exact S.
  - pose proof (mskel_strip_exact R0 rr R h pid I5 I3) as S. rewrite Er in S. exact S.
  - apply strip_m_nodup. exact I4.
  - apply strip_m_nodup. exact I5.
Qed.

Lemma strip_shared_exact tpl L0 R0 hs : NoDup (node_ids L0) -> NoDup (node_ids R0) ->
  NoDup hs -> (forall h, In h hs -> is_H_i tpl h = true /\ has_node tpl h = true /\ has_node L0 h = true /\ has_node R0 h = true) ->
  forall (t : triple) pid R, (forall h, In h hs -> ~ In h R) -> inv3 tpl L0 R0 t R ->
  inv3 tpl L0 R0 (fst (fold_left (fun (st : triple * N) h =>
         let '(rc, l, r, pid) := st in
         (strip_i rc h (Some pid), strip_m l h (Some pid), strip_m r h (Some pid), N.succ pid)) hs (t, pid))) (rev hs ++ R).
Proof.
  intros NL NR Hnd. induction Hnd as [|h r Hx Hn IH]; intros Hall t pid R Hdis I; [cbn [fold_left fst rev app]; exact I|].
  cbn [fold_left rev]. destruct t as [[rc l] rr]. rewrite <- app_assoc. cbn [app].
  apply (IH (fun x Ix => Hall x (or_intror Ix)) (strip_i rc h (Some pid), strip_m l h (Some pid), strip_m rr h (Some pid)) (N.succ pid) (h :: R)).
  - intros x Ix [E|C]; [subst; contradiction|exact (Hdis x (or_intror Ix) C)].
  - exact (proj2 (inv3_strip tpl L0 R0 rc l rr R h (Some pid) NL NR (Hall h (or_introl eq_refl)) (Hdis h (or_introl eq_refl)) I)).
Qed.

(** * step 3 removes nothing when no remaining hydrogen is removable on both sides *)
Lemma step3_rc_noop hs : forall (t : triple), (forall h, In h hs -> fully_removable (tl_ t) (tr_ t) h = Some false) ->
  fold_left (fun (st : option triple) h =>
      match st with
      | None => None
      | Some (rc, l, r) => match fully_removable l r h with
                           | Some true => Some (strip_i rc h None, l, r) | Some false => st | None => None end
      end) hs (Some t) = Some t.
Proof. exact (step3_fold_noop (fun rc l r h => (strip_i rc h None, l, r)) hs). Qed.
Lemma step3_l_noop hs : forall (t : triple), (forall h, In h hs -> fully_removable (tl_ t) (tr_ t) h = Some false) ->
  fold_left (fun (st : option triple) h =>
      match st with
      | None => None
      | Some (rc, l, r) => match fully_removable l r h with
                           | Some true => Some (rc, strip_m l h None, r) | Some false => st | None => None end
      end) hs (Some t) = Some t.
Proof. exact (step3_fold_noop (fun rc l r h => (rc, strip_m l h None, r)) hs). Qed.
Lemma step3_r_noop hs : forall (t : triple), (forall h, In h hs -> fully_removable (tl_ t) (tr_ t) h = Some false) ->
  fold_left (fun (st : option triple) h =>
      match st with
      | None => None
      | Some (rc, l, r) => match fully_removable l r h with
                           | Some true => Some (rc, l, strip_m r h None) | Some false => st | None => None end
      end) hs (Some t) = Some t.
Proof. exact (step3_fold_noop (fun rc l r h => (rc, l, strip_m r h None)) hs). Qed.

(** * the two side graphs at the start of _strip_explicit_h, node by node *)
Definition n0 (sn : inode -> nattr) (a : inode) : mnode :=
  MN (a_el (sn a)) (a_aro (sn a)) 0 (a_ch (sn a)) (if N.eqb (a_el (sn a)) EL_H then None else Some []).

Lemma side0_nodes_G tpl : gnodes (side0 iG eG tpl) = map (fun p => (fst p, n0 iG (snd p))) (gnodes tpl).
Proof. unfold side0, init_m, dec_side, standardize_hydrogen, map_nodes; cbn [gnodes]. rewrite !map_map. reflexivity. Qed.
Lemma side0_nodes_H tpl : gnodes (side0 iH eH tpl) = map (fun p => (fst p, n0 iH (snd p))) (gnodes tpl).
Proof. unfold side0, init_m, dec_side, standardize_hydrogen, map_nodes; cbn [gnodes]. rewrite !map_map. reflexivity. Qed.
Lemma side0_ids_G tpl : node_ids (side0 iG eG tpl) = node_ids tpl.
Proof. unfold node_ids. rewrite side0_nodes_G, map_map. reflexivity. Qed.
Lemma side0_ids_H tpl : node_ids (side0 iH eH tpl) = node_ids tpl.
Proof. unfold node_ids. rewrite side0_nodes_H, map_map. reflexivity. Qed.

Lemma h_nodes_m_H (g : molg) h : NoDup (node_ids g) -> In h (h_nodes_m g) -> is_H_m g h = true.
Proof.
  intros Hnd I. unfold h_nodes_m in I. apply in_map_iff in I. destruct I as ([k a] & <- & I). apply filter_In in I.
  destruct I as [I Ea]. cbn [fst snd] in *. unfold is_H_m, label. rewrite (assoc_nodup_in k (gnodes g) a Hnd I). exact Ea.
Qed.

Section Exact.
  Variable tpl : its.
  Hypothesis Hnd : NoDup (node_ids tpl).
  Hypothesis Hel : forall k a, In (k, a) (gnodes tpl) -> a_el (iH a) = a_el (iG a).
  Let L0 := side0 iG eG tpl.
  Let R0 := side0 iH eH tpl.

  Lemma NL0 : NoDup (node_ids L0). Proof. unfold L0. rewrite side0_ids_G. exact Hnd. Qed.
  Lemma NR0 : NoDup (node_ids R0). Proof. unfold R0. rewrite side0_ids_H. exact Hnd. Qed.

  (** hydrogens of the template, seen in the three graphs *)
  Lemma isH_L0 h : is_H_m L0 h = is_H_i tpl h.
  Proof.
    unfold is_H_m, is_H_i, label, L0. rewrite side0_nodes_G, (assoc_map (n0 iG)). destruct (assoc h (gnodes tpl)); reflexivity.
  Qed.
  Lemma isH_R0 h : is_H_m R0 h = is_H_i tpl h.
  Proof.
    unfold is_H_m, is_H_i, label, R0. rewrite side0_nodes_H, (assoc_map (n0 iH)). destruct (assoc h (gnodes tpl)) as [a|] eqn:E; [|reflexivity].
    pose proof E as E'. apply assoc_in in E'. cbn [option_map n0 m_el]. rewrite (Hel h a E'). reflexivity.
  Qed.
  Lemma has_L0 h : has_node L0 h = has_node tpl h.
  Proof. unfold has_node, label, L0. rewrite side0_nodes_G, (assoc_map (n0 iG)). destruct (assoc h (gnodes tpl)); reflexivity. Qed.
  Lemma has_R0 h : has_node R0 h = has_node tpl h.
  Proof. unfold has_node, label, R0. rewrite side0_nodes_H, (assoc_map (n0 iH)). destruct (assoc h (gnodes tpl)); reflexivity. Qed.
  Lemma h_nodes_isH (g : molg) h : NoDup (node_ids g) -> (In h (h_nodes_m g) <-> is_H_m g h = true).
  Proof.
    intros Hn. split; [apply h_nodes_m_H; exact Hn|]. unfold is_H_m, h_nodes_m. intros H.
    destruct (label g h) as [a|] eqn:El; [|discriminate]. unfold label in El. apply assoc_in in El.
    apply in_map_iff. exists (h, a). split; [reflexivity|]. apply filter_In. split; [exact El|exact H].
  Qed.
  Lemma isH_has h : is_H_i tpl h = true -> has_node tpl h = true.
  Proof. unfold is_H_i, has_node. destruct (label tpl h); [reflexivity|discriminate]. Qed.

  Definition run2 (hs : list N) : triple :=
    fst (fold_left (fun (st : triple * N) h =>
           let '(rc, l, r, pid) := st in
           (strip_i rc h (Some pid), strip_m l h (Some pid), strip_m r h (Some pid), N.succ pid)) (sort_N hs)
           ((init_i (standardize_hydrogen tpl), L0, R0), 1%N)).

  (** the hydrogens of step 2: exactly the template hydrogens with a non-hydrogen neighbour on both sides *)
  Lemma shared_hs_iff hs : shared_h L0 R0 = Some hs ->
    forall h, In h (sort_N hs) <-> is_H_i tpl h = true /\ heavy_nbr L0 h = true /\ heavy_nbr R0 h = true.
  Proof.
    intros Eh h. rewrite shared_h_unfold in Eh.
    rewrite in_sort_N_iff, (proj1 (sh_fold_spec _ _ _ hs Eh) h), (h_nodes_isH L0 h NL0), (isH_L0 h).
    unfold fully_removable. rewrite !removable_on_spec, has_L0, has_R0. split.
    - intros (A & B & C). split; [exact A|]. rewrite B in C. destruct (heavy_nbr L0 h); [|discriminate]. inversion C. auto.
    - intros (A & B & C). rewrite (isH_has h A), B, C. auto.
  Qed.
  Lemma shared_hs_nodup hs : shared_h L0 R0 = Some hs -> NoDup (sort_N hs).
  Proof.
    intros Eh. rewrite shared_h_unfold in Eh.
    exact (nodup_sort_N hs (proj2 (sh_fold_spec _ _ _ hs Eh) (NoDup_map_filter _ (gnodes L0) NL0))).
  Qed.
  Lemma shared_hs_nodes hs : shared_h L0 R0 = Some hs ->
    forall h, In h (sort_N hs) -> is_H_i tpl h = true /\ has_node tpl h = true /\ has_node L0 h = true /\ has_node R0 h = true.
  Proof.
    intros Eh h I. destruct (proj1 (shared_hs_iff hs Eh h) I) as (Hh & _). pose proof (isH_has h Hh). rewrite has_L0, has_R0. auto.
  Qed.
  Lemma inv3_init : inv3 tpl L0 R0 (init_i (standardize_hydrogen tpl), L0, R0) [].
  Proof. constructor; unfold tl_, tr_; cbn [fst snd]; [apply skel_nil|apply mskel_nil|apply mskel_nil|exact NL0|exact NR0]. Qed.

  (** the whole run, step by step, without assuming that it succeeds *)
  Lemma strip_steps hs : shared_h L0 R0 = Some hs ->
    inv3 tpl L0 R0 (run2 hs) (rev (sort_N hs)) /\
    step3_rc (run2 hs) = Some (run2 hs) /\ step3_l (run2 hs) = Some (run2 hs) /\ step3_r (run2 hs) = Some (run2 hs).
  Proof.
    intros Eh. set (t2 := run2 hs). pose proof (shared_hs_nodes hs Eh) as Hhs.
    assert (I2 : inv3 tpl L0 R0 t2 (rev (sort_N hs))).
    { pose proof (strip_shared_exact tpl L0 R0 (sort_N hs) NL0 NR0 (shared_hs_nodup hs Eh) Hhs
                    (init_i (standardize_hydrogen tpl), L0, R0) 1%N [] (fun h _ C => C) inv3_init) as I2.
      rewrite app_nil_r in I2. exact I2. }
    set (R2 := rev (sort_N hs)) in *.
    (* no remaining hydrogen is removable on both sides *)
    assert (HR2 : forall x, In x R2 -> is_H_i tpl x = true).
    { intros x Ix. unfold R2 in Ix. apply (proj2 (in_rev (sort_N hs) x)) in Ix. exact (proj1 (Hhs x Ix)). }
    assert (Stay : forall h, is_H_i tpl h = true -> ~ In h R2 -> fully_removable (tl_ t2) (tr_ t2) h = Some false).
    { intros h Hh HnR. destruct I2 as [_ S2l S2r _ _].
      rewrite (fully_removable_stable L0 R0 (tl_ t2) (tr_ t2) R2 R2 h NL0 NR0 S2l S2r
                 (fun x Ix => eq_trans (isH_L0 x) (HR2 x Ix)) (fun x Ix => eq_trans (isH_R0 x) (HR2 x Ix)) HnR HnR).
      unfold fully_removable. rewrite !removable_on_spec, has_L0, has_R0, (isH_has h Hh).
      destruct (heavy_nbr L0 h) eqn:E1; [|reflexivity]. destruct (heavy_nbr R0 h) eqn:E2; [|reflexivity].
      exfalso. apply HnR. unfold R2. rewrite <- in_rev. apply (shared_hs_iff hs Eh h). auto. }
    (* step 3 on rc *)
    assert (E3 : step3_rc t2 = Some t2).
    { unfold step3_rc. apply step3_rc_noop. intros h I. destruct I2 as [S2c _ _ _ _].
      pose proof (h_nodes_i_H _ h (skel_nodup tpl _ R2 Hnd S2c) I) as Hc.
      apply Stay; [exact (skel_H_transfer tpl _ R2 h Hnd S2c Hc)|].
      apply (skel_node_kept tpl _ R2 h S2c). unfold is_H_i in Hc. unfold has_node. destruct (label (fst (fst t2)) h); [reflexivity|discriminate]. }
    assert (Side : forall g0 g h, NoDup (node_ids g0) -> NoDup (node_ids g) -> mskel g0 g R2 -> In h (h_nodes_m g) ->
              is_H_m g0 h = true /\ ~ In h R2).
    { intros g0 g h N0 Ng S I. apply (proj1 (h_nodes_isH g h Ng)) in I. pose proof (mskel_label g0 g R2 h N0 S) as Lb.
      unfold is_H_m in *. destruct (label g h) as [a|]; [|discriminate]. destruct Lb as (a0 & E0 & Ee & HnR).
      rewrite E0, <- Ee. auto. }
    assert (E4 : step3_l t2 = Some t2).
    { unfold step3_l. apply step3_l_noop. intros h I. destruct I2 as [_ S2l _ N2l _].
      destruct (Side L0 _ h NL0 N2l S2l I) as [A B]. apply Stay; [rewrite <- isH_L0; exact A|exact B]. }
    assert (E5 : step3_r t2 = Some t2).
    { unfold step3_r. apply step3_r_noop. intros h I. destruct I2 as [_ _ S2r _ N2r].
      destruct (Side R0 _ h NR0 N2r S2r I) as [A B]. apply Stay; [rewrite <- isH_R0; exact A|exact B]. }
    auto.
  Qed.

  Lemma strip_value hs : shared_h L0 R0 = Some hs ->
    strip_explicit_h (standardize_hydrogen tpl) (dec_side iG eG (standardize_hydrogen tpl)) (dec_side iH eH (standardize_hydrogen tpl)) = Some (run2 hs).
  Proof.
    intros Eh. destruct (strip_steps hs Eh) as (_ & E3 & E4 & E5).
    unfold strip_explicit_h. cbn [fst snd].
    change (shared_h (init_m (dec_side iG eG (standardize_hydrogen tpl))) (init_m (dec_side iH eH (standardize_hydrogen tpl)))) with (shared_h L0 R0).
    rewrite Eh.
    change (strip_shared _ (sort_N hs)) with (run2 hs). rewrite E3, E4. exact E5.
  Qed.

  Theorem strip_exact rc l r :
    strip_explicit_h (standardize_hydrogen tpl) (dec_side iG eG (standardize_hydrogen tpl)) (dec_side iH eH (standardize_hydrogen tpl)) = Some (rc, l, r) ->
    exists hs, shared_h L0 R0 = Some hs /\ inv3 tpl L0 R0 (rc, l, r) (rev (sort_N hs)).
  Proof.
    intros H. destruct (shared_h L0 R0) as [hs|] eqn:Eh.
    - exists hs. split; [reflexivity|]. rewrite (strip_value hs Eh) in H. inversion H as [Ht]. exact (proj1 (strip_steps hs Eh)).
    - exfalso. unfold strip_explicit_h in H. cbn [fst snd] in H. fold (side0 iG eG tpl) in H. fold (side0 iH eH tpl) in H. fold L0 in H. fold R0 in H.
      rewrite Eh in H. discriminate.
  Qed.
End Exact.

(** * the theorem: the rule prepared in the default mode, exactly *)
Theorem synrule_default_exact_nodup (tpl rc : its) (l r : molg) :
  nodupb (node_ids tpl) = true -> (forall k a, In (k, a) (gnodes tpl) -> a_el (iH a) = a_el (iG a)) ->
  synrule tpl true = Some (rc, l, r) ->
  exists R : list N, NoDup R /\
    (forall h, In h R <-> is_H_i tpl h = true /\ heavy_nbr (side0 iG eG tpl) h = true /\ heavy_nbr (side0 iH eH tpl) h = true) /\
    (Forall2 same_core (gnodes rc) (filter (keepn R) (gnodes tpl)) /\ gedges rc = filter (keepe R) (gedges tpl)) /\
    (Forall2 (mrel (sum_cnt (gedges (side0 iG eG tpl)) R)) (gnodes l) (filter (mkeepn R) (gnodes (side0 iG eG tpl))) /\
     gedges l = filter (mkeepe R) (gedges (side0 iG eG tpl))) /\
    (Forall2 (mrel (sum_cnt (gedges (side0 iH eH tpl)) R)) (gnodes r) (filter (mkeepn R) (gnodes (side0 iH eH tpl))) /\
     gedges r = filter (mkeepe R) (gedges (side0 iH eH tpl))) /\
    (forall k a, In (k, a) (gnodes rc) ->
       exists la ra, label l k = Some la /\ label r k = Some ra /\ a_hc (iG a) = m_hc la /\ a_hc (iH a) = m_hc ra).
Proof.
  intros Hnd Hel H. apply nodupb_NoDup in Hnd. destruct (synrule_default_inv tpl rc l r H) as (rc1 & Es & Er). clear H.
  destruct (strip_exact tpl Hnd Hel rc1 l r Es) as (hs & Eh & [I1 I2 I3 _ _]). unfold tl_, tr_ in *. cbn [fst snd] in *.
  exists (rev (sort_N hs)). split; [|split; [|split; [|split; [|split]]]].
  - apply NoDup_rev. exact (shared_hs_nodup tpl Hnd hs Eh).
  - intros h. rewrite <- in_rev. exact (shared_hs_iff tpl Hnd hs Eh h).
  - destruct (refresh_types_core _ _ _ _ Er) as [F1 F2]. destruct I1 as [_ K2 K3]. split.
    + eapply Forall2_trans'; [exact same_core_trans|exact F1|exact K2].
    + rewrite F2. exact K3.
  - destruct I2 as [A B]. split; [exact A|]. rewrite B. reflexivity.
  - destruct I3 as [A B]. split; [exact A|]. rewrite B. reflexivity.
  - exact (refresh_types_counts rc1 l r rc Er).
Qed.

Theorem synrule_default_exact (tpl rc : its) (l r : molg) :
  nodupb (node_ids tpl) = true -> (forall k a, In (k, a) (gnodes tpl) -> a_el (iH a) = a_el (iG a)) ->
  synrule tpl true = Some (rc, l, r) ->
  exists R : list N,
    (forall h, In h R <-> is_H_i tpl h = true /\ heavy_nbr (side0 iG eG tpl) h = true /\ heavy_nbr (side0 iH eH tpl) h = true) /\
    (Forall2 same_core (gnodes rc) (filter (keepn R) (gnodes tpl)) /\ gedges rc = filter (keepe R) (gedges tpl)) /\
    (Forall2 (mrel (sum_cnt (gedges (side0 iG eG tpl)) R)) (gnodes l) (filter (mkeepn R) (gnodes (side0 iG eG tpl))) /\
     gedges l = filter (mkeepe R) (gedges (side0 iG eG tpl))) /\
    (Forall2 (mrel (sum_cnt (gedges (side0 iH eH tpl)) R)) (gnodes r) (filter (mkeepn R) (gnodes (side0 iH eH tpl))) /\
     gedges r = filter (mkeepe R) (gedges (side0 iH eH tpl))) /\
    (forall k a, In (k, a) (gnodes rc) ->
       exists la ra, label l k = Some la /\ label r k = Some ra /\ a_hc (iG a) = m_hc la /\ a_hc (iH a) = m_hc ra).
Proof. intros Hnd Hel H. destruct (synrule_default_exact_nodup tpl rc l r Hnd Hel H) as (R & _ & HR). exists R. exact HR. Qed.

