(** C02 — the facade synkit.Rule.Modify.implict_rule.implicit_rule(rsmi, disconnected, balance_its)
      = get_rc(ITSGraph(r, p, balance_its=balance_its), disconnected=disconnected)
    on the graphs (r, p) of the hydrogen-stripped reaction: [implicit_rule_m]; what it returns, stated on the two sides. *)
From Coq Require Import List NArith ZArith Bool.
From SK Require Import lib.LGraph model.C01_Model model.C02_Model proof.C02_Proof proof.C02_Opts proof.C02_Sides2
                       proof.C02_Wfb.
Import ListNotations.
Local Open Scope Z_scope.

Definition implicit_rule_m (disconnected bal : bool) (G H : mgraph) : xits :=
  get_rc_x K_default disconnected false (emb (its_construct_ab false bal G H)).

Theorem implicit_rule_spec bal (G H : mgraph) : wf G -> wf H ->
  (* disconnected = False: the centre of the ITS — joined iff bonded on some side and the order differs, or both hydrogens *)
  (forall u v, (exists y, adj (implicit_rule_m false bal G H) u v = Some y) <->
               (adj G u v <> None \/ adj H u v <> None) /\
               (order_in G u v <> order_in H u v \/ (is_h (its_construct_ab false bal G H) u = true /\ is_h (its_construct_ab false bal G H) v = true))) /\
  (* disconnected = True: additionally the atoms whose charge changes, and every ITS bond between atoms of the result *)
  (forall n, In n (node_ids (implicit_rule_m true bal G H)) <->
             In n (node_ids (implicit_rule_m false bal G H)) \/
             (exists a, label (its_construct_ab false bal G H) n = Some a /\ a_ch (i_G a) <> a_ch (i_H a))) /\
  (forall u v e, (exists y, adj (implicit_rule_m true bal G H) u v = Some y /\ fst y = e) <->
                 adj (its_construct_ab false bal G H) u v = Some e /\ In u (node_ids (implicit_rule_m true bal G H)) /\ In v (node_ids (implicit_rule_m true bal G H))).
Proof.
  intros WG WH. pose proof (wf_construct_ab false bal G H WG WH) as WI. set (I := its_construct_ab false bal G H) in *.
  assert (wf (emb I)) as WE by (apply wf_gmap; exact WI).
  unfold implicit_rule_m. fold I. split; [|split].
  - intros u v. rewrite adj_rc_emb.
    pose proof (centre_vs_sides_all false bal G H WG WH u v) as CS. fold I in CS. cbv zeta in CS. rewrite <- CS.
    destruct (adj (get_rc I) u v) as [e|]; simpl; split; try (intros _; eexists; reflexivity); intros (y & C); discriminate.
  - intros n. destruct (rcx_disconnected K_default false (emb I) WE) as [HN _]. rewrite (HN n). clear HN.
    split; (intros [L|R]; [left; exact L|right]).
    + destruct R as (a & La & C). rewrite label_emb in La. destruct (label I n) as [a0|]; [|discriminate]. simpl in La. injection La as <-.
      exists a0. split; [reflexivity|]. unfold charge_changed, xn_of in C. simpl in C. apply negb_true_iff, Z.eqb_neq in C. exact C.
    + destruct R as (a0 & La & C). exists (xn_of a0). split; [rewrite label_emb, La; reflexivity|].
      unfold charge_changed, xn_of. simpl. apply negb_true_iff, Z.eqb_neq. exact C.
  - intros u v e. destruct (rcx_disconnected K_default false (emb I) WE) as [_ HA]. rewrite (HA u v e). clear HA. rewrite adj_emb.
    split.
    + intros ((x & A & E) & Iu & Iv). destruct (adj I u v) as [e0|]; [|discriminate]. simpl in A. injection A as <-. simpl in E. subst e0. auto.
    + intros (A & Iu & Iv). rewrite A. simpl. split; [eexists; split; reflexivity|auto].
Qed.

(** non-vacuity: C-O becomes C=O while a spectator nitrogen gains a charge: the connected centre is {1,2}, the disconnected one adds atom 3 *)
Definition ir_G : mgraph := LG [(1%N, GN 70%N false 3 0 (Some []) 1); (2%N, GN 82%N false 1 0 (Some []) 2); (3%N, GN 81%N false 3 0 (Some []) 3)] [(1%N, 2%N, 2)].
Definition ir_H : mgraph := LG [(1%N, GN 70%N false 2 0 (Some []) 1); (2%N, GN 82%N false 0 0 (Some []) 2); (3%N, GN 81%N false 4 1 (Some []) 3)] [(1%N, 2%N, 4)].
Example C02_implicit_rule_nonvacuous :
  wf ir_G /\ wf ir_H /\ node_ids (implicit_rule_m false false ir_G ir_H) = [1%N; 2%N] /\ node_ids (implicit_rule_m true false ir_G ir_H) = [1%N; 2%N; 3%N] /\
  adj (implicit_rule_m true true ir_G ir_H) 1%N 2%N = Some (IE 2 4 (-2), Some false).
Proof.
  split; [apply wfb_sound; reflexivity|]. split; [apply wfb_sound; reflexivity|]. vm_compute. repeat split; reflexivity.
Qed.
