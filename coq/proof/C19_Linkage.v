(** C19 — linkage classes and weak reversibility of model/C19_Model.v.
    The linkage classes are exactly the connected components of the undirected complex graph (a partition of the complex
    indices; same class iff joined by an undirected path); the weak-reversibility verdict is true iff every class is
    strongly connected, iff every arc y -> y' has a directed return path y' -> ... -> y.  The fuel (number of complexes
    + 1) always suffices.  Built on lib/Reach.v.  Style: stdlib lists. *)
From Coq Require Import List NArith Bool Arith Lia.
From SK Require Import lib.Reach model.C17_Model model.C19_Model proof.C19_Complexes.
Import ListNotations.
Local Open Scope nat_scope.

(* ------------------------------------------------------------------ specification: paths in the complex graph *)

(** directed path u ->* w along the arcs *)
Inductive dpath (arcs : list (nat * nat)) : nat -> nat -> Prop :=
| dp_refl u : dpath arcs u u
| dp_step u v w : dpath arcs u v -> In (v, w) arcs -> dpath arcs u w.
(** undirected path: every step follows an arc forwards or backwards *)
Inductive upath (arcs : list (nat * nat)) : nat -> nat -> Prop :=
| up_refl u : upath arcs u u
| up_step u v w : upath arcs u v -> In (v, w) arcs \/ In (w, v) arcs -> upath arcs u w.

Lemma dpath_trans arcs u v w : dpath arcs u v -> dpath arcs v w -> dpath arcs u w.
Proof. intros H1 H2. induction H2 as [|v w x H IH I]; [exact H1|]. eapply dp_step; [apply IH; exact H1|exact I]. Qed.
Lemma upath_trans arcs u v w : upath arcs u v -> upath arcs v w -> upath arcs u w.
Proof. intros H1 H2. induction H2 as [|v w x H IH I]; [exact H1|]. eapply up_step; [apply IH; exact H1|exact I]. Qed.
Lemma upath_sym arcs u v : upath arcs u v -> upath arcs v u.
Proof.
  induction 1 as [u|u v w H IH S]; [constructor|].
  eapply upath_trans; [|exact IH]. eapply up_step; [constructor|]. tauto.
Qed.
Lemma dpath_upath arcs u v : dpath arcs u v -> upath arcs u v.
Proof. induction 1; [constructor|]. eapply up_step; eauto. Qed.
Lemma dpath_sink arcs a b : (forall w, ~ In (a, w) arcs) -> dpath arcs a b -> b = a.
Proof. intros H P. induction P as [|a v w P IH I]; [reflexivity|]. rewrite (IH H) in I. destruct (H w I). Qed.

(* ------------------------------------------------------------------ neighbour lists *)

Lemma mem_iff x y l l' : (In x l <-> In y l') -> mem x l = mem y l'.
Proof.
  intros H. destruct (mem x l) eqn:M1, (mem y l') eqn:M2; auto;
    [apply mem_spec, H, mem_spec in M1|apply mem_spec, H, mem_spec in M2]; congruence.
Qed.

Lemma nn_inj a b : nn a = nn b -> a = b.
Proof. apply Nat2N.inj. Qed.

Lemma nbrs_in (f g : nat * nat -> nat) arcs x y :
  In y (flat_map (fun a => if N.eqb (nn (f a)) x then [nn (g a)] else []) arcs) <->
  exists a, In a arcs /\ nn (f a) = x /\ y = nn (g a).
Proof.
  rewrite in_flat_map. split; intros (a & I & H); exists a; (split; [exact I|]).
  - destruct (N.eqb_spec (nn (f a)) x); [|destruct H]. destruct H as [H|[]]. auto.
  - destruct H as [-> ->]. rewrite N.eqb_refl. left. reflexivity.
Qed.
Lemma succs_in arcs x y : In y (succs arcs x) <-> exists a, In a arcs /\ nn (fst a) = x /\ y = nn (snd a).
Proof. apply (nbrs_in fst snd). Qed.
Lemma preds_in arcs x y : In y (preds arcs x) <-> exists a, In a arcs /\ nn (snd a) = x /\ y = nn (fst a).
Proof. apply (nbrs_in snd fst). Qed.
Lemma und_in arcs x y : In y (und_nbr arcs x) <-> In y (succs arcs x) \/ In y (preds arcs x).
Proof. unfold und_nbr. apply in_app_iff. Qed.

Lemma succs_nn arcs u w : In (nn w) (succs arcs (nn u)) <-> In (u, w) arcs.
Proof.
  rewrite succs_in. split.
  - intros ([a b] & I & H1 & H2). simpl in *. apply nn_inj in H1, H2. subst. exact I.
  - intros I. exists (u, w). auto.
Qed.
Lemma preds_nn arcs u w : In (nn w) (preds arcs (nn u)) <-> In (w, u) arcs.
Proof.
  rewrite preds_in. split.
  - intros ([a b] & I & H1 & H2). simpl in *. apply nn_inj in H1, H2. subst. exact I.
  - intros I. exists (w, u). auto.
Qed.

Definition nodes (k : nat) : list N := map nn (seq 0 k).
Lemma nodes_in k x : In x (nodes k) <-> exists i, i < k /\ x = nn i.
Proof.
  unfold nodes. rewrite in_map_iff. split.
  - intros (i & <- & I). apply in_seq in I. exists i. split; [lia|reflexivity].
  - intros (i & L & ->). exists i. split; auto. apply in_seq. lia.
Qed.
Lemma nodes_length k : length (nodes k) = k.
Proof. unfold nodes. rewrite map_length, seq_length. reflexivity. Qed.

Section Graph.
Variable arcs : list (nat * nat).
Variable k : nat.
Hypothesis OK : arcs_ok arcs k.

Lemma succs_nodes u v : In v (succs arcs u) -> In v (nodes k).
Proof. rewrite succs_in. intros (a & I & _ & ->). apply nodes_in. exists (snd a). split; auto. apply (OK a I). Qed.
Lemma preds_nodes u v : In v (preds arcs u) -> In v (nodes k).
Proof. rewrite preds_in. intros (a & I & _ & ->). apply nodes_in. exists (fst a). split; auto. apply (OK a I). Qed.
Lemma und_nodes u v : In v (und_nbr arcs u) -> In v (nodes k).
Proof. rewrite und_in. intros [H|H]; [eapply succs_nodes | eapply preds_nodes]; eauto. Qed.

(** conn of lib/Reach.v = the paths above *)
Lemma conn_succs u x : conn (succs arcs) [nn u] x <-> exists w, x = nn w /\ dpath arcs u w.
Proof.
  split.
  - induction 1 as [x [<-|[]]|y z H (w & -> & P) I].
    + exists u. split; auto. constructor.
    + apply succs_in in I. destruct I as ([a b] & I & H1 & ->). simpl in *. apply nn_inj in H1. subst.
      exists b. split; auto. eapply dp_step; eauto.
  - intros (w & -> & P). induction P as [u|u v w P IH I]; [constructor; simpl; auto|].
    eapply conn_step; [exact IH|]. apply succs_nn. exact I.
Qed.
Lemma conn_preds u x : conn (preds arcs) [nn u] x <-> exists w, x = nn w /\ dpath arcs w u.
Proof.
  split.
  - induction 1 as [x [<-|[]]|y z H (w & -> & P) I].
    + exists u. split; auto. constructor.
    + apply preds_in in I. destruct I as ([a b] & I & H1 & ->). simpl in *. apply nn_inj in H1. subst.
      exists a. split; auto. eapply dpath_trans; [|exact P]. eapply dp_step; [constructor|exact I].
  - intros (w & -> & P). induction P as [u|w v u P IH I]; [constructor; simpl; auto|].
    (* w ->* v -> u : v is a predecessor of u, then w reaches v *)
    assert (C : forall t, conn (preds arcs) [nn v] t -> conn (preds arcs) [nn u] t).
    { intros t Ht. induction Ht as [t [<-|[]]|y z Hy IHy Iz].
      - eapply conn_step; [constructor; simpl; auto|]. apply preds_nn. exact I.
      - eapply conn_step; eauto. }
    apply C. exact IH.
Qed.
Lemma conn_und u x : conn (und_nbr arcs) [nn u] x <-> exists w, x = nn w /\ upath arcs u w.
Proof.
  split.
  - induction 1 as [x [<-|[]]|y z H (w & -> & P) I].
    + exists u. split; auto. constructor.
    + apply und_in in I. destruct I as [I|I].
      * apply succs_in in I. destruct I as ([a b] & I & H1 & ->). simpl in *. apply nn_inj in H1. subst.
        exists b. split; auto. eapply up_step; eauto.
      * apply preds_in in I. destruct I as ([a b] & I & H1 & ->). simpl in *. apply nn_inj in H1. subst.
        exists a. split; auto. eapply up_step; eauto.
  - intros (w & -> & P). induction P as [u|u v w P IH I]; [constructor; simpl; auto|].
    eapply conn_step; [exact IH|]. apply und_in. destruct I as [I|I]; [left; apply succs_nn | right; apply preds_nn]; exact I.
Qed.

Lemma saturate_nodup nbr fuel : forall S R, NoDup S -> saturate nbr fuel S = Some R -> NoDup R.
Proof.
  induction fuel as [|f IH]; intros S R ND E; [discriminate|]. simpl in E.
  destruct (length (step nbr S) =? length S); [inversion E; subst; exact ND|].
  eapply IH; [|exact E]. apply step_nodup. exact ND.
Qed.

Lemma saturate_some nbr u : (forall a b, In b (nbr a) -> In b (nodes k)) -> u < k -> saturate nbr (S k) [nn u] <> None.
Proof.
  intros Hn Hu. apply (@saturate_fuel (nodes k) nbr Hn).
  - repeat constructor. intros [].
  - intros x [<-|[]]. apply nodes_in. eauto.
  - rewrite nodes_length. simpl. lia.
Qed.

(** the closure: fuel k+1 suffices, the result is duplicate free and is exactly the connected set *)
Lemma closure_spec nbr u : (forall a b, In b (nbr a) -> In b (nodes k)) -> u < k ->
  NoDup (closure nbr k (nn u)) /\ forall x, In x (closure nbr k (nn u)) <-> conn nbr [nn u] x.
Proof.
  intros Hn Hu. unfold closure.
  destruct (saturate nbr (S k) [nn u]) as [R|] eqn:E.
  - split.
    + eapply saturate_nodup; [|exact E]. repeat constructor. intros [].
    + eapply (@saturate_spec nbr [nn u] (S k) [nn u] R); auto. intros x I. constructor. exact I.
  - destruct (saturate_some nbr u Hn Hu E).
Qed.

Lemma closure_succs u : u < k -> forall x, In x (closure (succs arcs) k (nn u)) <-> exists w, x = nn w /\ dpath arcs u w.
Proof. intros Hu x. rewrite <- conn_succs. apply closure_spec; auto. apply succs_nodes. Qed.
Lemma closure_preds u : u < k -> forall x, In x (closure (preds arcs) k (nn u)) <-> exists w, x = nn w /\ dpath arcs w u.
Proof. intros Hu x. rewrite <- conn_preds. apply closure_spec; auto. apply preds_nodes. Qed.
Lemma closure_und u : u < k -> forall x, In x (closure (und_nbr arcs) k (nn u)) <-> exists w, x = nn w /\ upath arcs u w.
Proof. intros Hu x. rewrite <- conn_und. apply closure_spec; auto. apply und_nodes. Qed.
Lemma closure_und_nodup u : u < k -> NoDup (closure (und_nbr arcs) k (nn u)).
Proof. intros Hu. apply closure_spec; auto. apply und_nodes. Qed.

Lemma upath_lt u w : u < k -> upath arcs u w -> w < k.
Proof. intros Hu P. induction P as [|u v w P IH [I|I]]; auto; [apply (OK _ I) | apply (OK _ I)]. Qed.

(* ------------------------------------------------------------------ classes_go *)

(** component of the complex u, as a predicate on N *)
Definition comp (u : nat) (y : N) : Prop := exists w, y = nn w /\ upath arcs u w.

Definition closed (seen : list N) : Prop :=
  forall u w, In (nn u) seen -> upath arcs u w -> In (nn w) seen.

Lemma classes_go_spec todo : forall seen,
  (forall x, In x todo -> In x (nodes k)) -> closed seen ->
  let L := classes_go (und_nbr arcs) k todo seen in
  (forall c, In c L -> exists u, u < k /\ In (nn u) todo /\ NoDup c /\ forall y, In y c <-> comp u y) /\
  NoDup (concat L) /\
  (forall y, In y (concat L) <-> ~ In y seen /\ exists u, In (nn u) todo /\ comp u y).
Proof.
  induction todo as [|x rest IH]; intros seen Ht Hc; simpl.
  - split; [intros c []|]. split; [constructor|]. intros y. split; [intros []|intros (_ & u & [] & _)].
  - assert (Hx : In x (nodes k)) by (apply Ht; left; reflexivity).
    apply nodes_in in Hx. destruct Hx as (u & Hu & ->).
    assert (Ht' : forall x, In x rest -> In x (nodes k)) by (intros; apply Ht; right; assumption).
    destruct (mem (nn u) seen) eqn:M.
    + apply mem_spec in M. destruct (IH seen Ht' Hc) as (Q1 & Q2 & Q3).
      split; [|split; [exact Q2|]].
      * intros c I. destruct (Q1 c I) as (u' & L' & I' & R). exists u'. split; auto.
      * intros y. rewrite Q3. split; intros (Ns & u' & I' & C'); (split; [exact Ns|]).
        -- exists u'. split; [right; exact I'|exact C'].
        -- destruct I' as [E|I']; [|eauto]. apply nn_inj in E. subst u'. destruct C' as (w & -> & P).
           destruct (Ns (Hc u w M P)).
    + assert (Mn : ~ In (nn u) seen) by (intros I; apply mem_spec in I; congruence).
      set (c := closure (und_nbr arcs) k (nn u)) in *.
      assert (Cs : forall y, In y c <-> comp u y) by (apply closure_und; exact Hu).
      assert (Cn : NoDup c) by (apply closure_und_nodup; exact Hu).
      assert (Hc' : closed (c ++ seen)).
      { intros a b I P. apply in_or_app. apply in_app_or in I. destruct I as [I|I].
        - left. apply Cs. apply Cs in I. destruct I as (w & E & P'). apply nn_inj in E. subst w.
          exists b. split; auto. eapply upath_trans; eauto.
        - right. eapply Hc; eauto. }
      assert (Dj : forall y, In y c -> ~ In y seen).
      { intros y I Is. apply Cs in I. destruct I as (w & -> & P). apply Mn. eapply Hc; [exact Is|]. apply upath_sym. exact P. }
      destruct (IH (c ++ seen) Ht' Hc') as (Q1 & Q2 & Q3). simpl concat.
      split; [|split].
      * intros c' [<-|I].
        -- exists u. split; auto.
        -- destruct (Q1 c' I) as (u' & L' & I' & R). exists u'. split; auto.
      * apply NoDup_app_intro; auto. intros y I1 I2. apply Q3 in I2. destruct I2 as [N _]. apply N, in_or_app. left. exact I1.
      * intros y. rewrite in_app_iff, Q3, in_app_iff. split.
        -- intros [I|(Ns & u' & I' & C')].
           ++ split; [exact (Dj y I)|]. exists u. split; [left; reflexivity|apply Cs; exact I].
           ++ split; [tauto|]. exists u'. split; [right; exact I'|exact C'].
        -- intros (Ns & u' & [E|I'] & C').
           ++ apply nn_inj in E. subst u'. left. apply Cs. exact C'.
           ++ destruct (mem y c) eqn:My; [left; apply mem_spec; exact My|].
              right. split; [|eauto]. intros [I|I]; [apply mem_spec in I; congruence|exact (Ns I)].
Qed.

(* ------------------------------------------------------------------ linkage classes = connected components *)

Lemma classes_raw :
  let L := linkage_classes arcs k in
  (forall c, In c L -> exists u, u < k /\ NoDup c /\ forall y, In y c <-> comp u y) /\
  NoDup (concat L) /\
  (forall y, In y (concat L) <-> exists u, In (nn u) (nodes k) /\ comp u y).
Proof.
  unfold linkage_classes. fold (nodes k).
  destruct (classes_go_spec (nodes k) [] (fun x I => I)) as (Q1 & Q2 & Q3).
  { intros u w []. }
  split; [|split; [exact Q2|]].
  - intros c I. destruct (Q1 c I) as (u & Hu & _ & R). eauto.
  - intros y. rewrite Q3. split; [intros [_ H]; exact H|intros H; split; [intros []|exact H]].
Qed.

Theorem linkage_spec :
  let L := linkage_classes arcs k in
  NoDup (concat L) /\
  (forall y, In y (concat L) <-> exists i, i < k /\ y = nn i) /\
  (forall c, In c L -> NoDup c /\ c <> []) /\
  (forall c, In c L -> forall i, In (nn i) c -> forall j, In (nn j) c <-> upath arcs i j).
Proof.
  destruct classes_raw as (Q1 & Q2 & Q4). split; [exact Q2|]. split; [|split].
  - intros y. rewrite Q4. split.
    + intros (u & Iu & w & -> & P). apply nodes_in in Iu. destruct Iu as (u' & Hu & E). apply nn_inj in E. subst u'.
      exists w. split; auto. eapply upath_lt; eauto.
    + intros (i & Hi & ->). exists i. split; [apply nodes_in; eauto|]. exists i. split; auto. constructor.
  - intros c I. destruct (Q1 c I) as (u & Hu & ND & R). split; auto. intros ->.
    apply (proj2 (R (nn u))). exists u. split; auto. constructor.
  - intros c I i Ii j. destruct (Q1 c I) as (u & Hu & ND & R).
    apply R in Ii. destruct Ii as (w & E & Pi). apply nn_inj in E. subst w.
    rewrite R. split.
    + intros (w & E & Pj). apply nn_inj in E. subst w. eapply upath_trans; [apply upath_sym; exact Pi|exact Pj].
    + intros P. exists j. split; auto. eapply upath_trans; eauto.
Qed.

(** every member of a class is a complex index *)
Lemma class_members c : In c (linkage_classes arcs k) -> forall y, In y c -> exists i, i < k /\ y = nn i.
Proof.
  intros I y Iy. destruct linkage_spec as (_ & Q & _ & _). apply Q. apply in_concat. eauto.
Qed.

(** two complexes are in the same linkage class iff they are joined by an undirected path *)
Theorem same_class_iff i j : i < k -> j < k ->
  ((exists c, In c (linkage_classes arcs k) /\ In (nn i) c /\ In (nn j) c) <-> upath arcs i j).
Proof.
  intros Hi Hj. destruct linkage_spec as (_ & Q2 & _ & Q4). split.
  - intros (c & I & Ii & Ij). apply (Q4 c I i Ii j). exact Ij.
  - intros P. assert (X : In (nn i) (concat (linkage_classes arcs k))) by (apply Q2; eauto).
    apply in_concat in X. destruct X as (c & I & Ii). exists c. split; auto. split; auto. apply (Q4 c I i Ii j). exact P.
Qed.

(* ------------------------------------------------------------------ weak reversibility *)

Lemma subset_spec a b : subset a b = true <-> forall x, In x a -> In x b.
Proof.
  unfold subset. rewrite forallb_forall. split; intros H x I; [apply mem_spec | apply mem_spec]; auto.
Qed.

Lemma strongly_connected_spec c : In c (linkage_classes arcs k) ->
  (strongly_connected arcs k c = true <-> forall i j, In (nn i) c -> In (nn j) c -> dpath arcs i j).
Proof.
  intros I. destruct linkage_spec as (_ & _ & Q3 & _). destruct (Q3 c I) as (_ & NE).
  destruct c as [|h t]; [congruence|]. clear NE.
  destruct (class_members _ I h (or_introl eq_refl)) as (u & Hu & ->).
  unfold strongly_connected. rewrite andb_true_iff, !subset_spec. split.
  - intros (F & B) i j Ii Ij.
    apply F in Ij. apply closure_succs in Ij; auto. destruct Ij as (w & E & Pj). apply nn_inj in E. subst w.
    apply B in Ii. apply closure_preds in Ii; auto. destruct Ii as (w & E & Pi). apply nn_inj in E. subst w.
    eapply dpath_trans; eauto.
  - intros H. split; intros x Ix; destruct (class_members _ I x Ix) as (i & Hi & ->).
    + apply closure_succs; auto. exists i. split; auto. apply H; simpl; auto.
    + apply closure_preds; auto. exists i. split; auto. apply H; simpl; auto.
Qed.

Theorem weak_rev_spec :
  weakly_reversible arcs k = true <->
  forall c, In c (linkage_classes arcs k) -> forall i j, In (nn i) c -> In (nn j) c -> dpath arcs i j.
Proof.
  unfold weakly_reversible. rewrite forallb_forall. split.
  - intros H c I. apply (proj1 (strongly_connected_spec c I)). apply H. exact I.
  - intros H c I. apply (proj2 (strongly_connected_spec c I)). apply H. exact I.
Qed.

Lemma return_paths_upath : (forall u v, In (u, v) arcs -> dpath arcs v u) -> forall i j, upath arcs i j -> dpath arcs i j.
Proof.
  intros R i j P. induction P as [|i v w P IH [I|I]]; [constructor| |].
  - eapply dp_step; eauto.
  - eapply dpath_trans; [exact IH|]. apply R. exact I.
Qed.

Theorem weak_rev_arcs :
  weakly_reversible arcs k = true <-> forall u v, In (u, v) arcs -> dpath arcs v u.
Proof.
  rewrite weak_rev_spec. split.
  - intros H u v I. destruct (OK _ I) as (Hu & Hv). simpl in *.
    assert (P : upath arcs u v) by (eapply up_step; [constructor|left; exact I]).
    apply same_class_iff in P; auto. destruct P as (c & Ic & Iu & Iv). eapply H; eauto.
  - intros R c I i j Ii Ij. apply return_paths_upath; auto.
    destruct linkage_spec as (_ & _ & _ & Q4). apply (Q4 c I i Ii j). exact Ij.
Qed.
End Graph.

(* ------------------------------------------------------------------ the model's network *)

Lemma compute_summary_eq net iso r :
  compute_summary net iso r =
  let cs := fst (complex_graph net iso) in
  let arcs := snd (complex_graph net iso) in
  let k := length cs in
  let nl := length (linkage_classes arcs k) in
  Summary (length (species_order net iso)) (length (reaction_order net)) k nl r (deficiency_of k nl r) (weakly_reversible arcs k).
Proof. unfold compute_summary. destruct (complex_graph net iso) as [cs arcs]. reflexivity. Qed.

Theorem net_linkage net iso :
  let cs := fst (complex_graph net iso) in
  let arcs := snd (complex_graph net iso) in
  let k := length cs in
  let L := linkage_classes arcs k in
  (forall r, n_linkage (compute_summary net iso r) = length L) /\
  NoDup (concat L) /\
  (forall y, In y (concat L) <-> exists i, i < k /\ y = nn i) /\
  (forall c, In c L -> NoDup c /\ c <> []) /\
  (forall i j, i < k -> j < k -> ((exists c, In c L /\ In (nn i) c /\ In (nn j) c) <-> upath arcs i j)).
Proof.
  intros cs arcs k L. pose proof (complex_graph_arcs_ok net iso) as OK. fold cs arcs k in OK.
  destruct (linkage_spec arcs k OK) as (Q1 & Q2 & Q3 & _).
  split; [intros r; rewrite compute_summary_eq; reflexivity|]. split; [exact Q1|]. split; [exact Q2|]. split; [exact Q3|].
  intros i j Hi Hj. apply same_class_iff; assumption.
Qed.

Theorem net_weak_rev net iso r :
  let arcs := snd (complex_graph net iso) in
  let k := length (fst (complex_graph net iso)) in
  (weakly_rev (compute_summary net iso r) = true <->
   forall c, In c (linkage_classes arcs k) -> forall i j, In (nn i) c -> In (nn j) c -> dpath arcs i j) /\
  (weakly_rev (compute_summary net iso r) = true <-> forall u v, In (u, v) arcs -> dpath arcs v u).
Proof.
  intros arcs k. pose proof (complex_graph_arcs_ok net iso) as OK. fold arcs k in OK.
  rewrite compute_summary_eq. simpl. fold arcs k. split; [apply weak_rev_spec | apply weak_rev_arcs]; exact OK.
Qed.

(** weak reversibility in terms of the reactions themselves *)
Theorem net_weak_rev_reactions net iso r : NoDup (map rid net) ->
  let cs := fst (complex_graph net iso) in
  let arcs := snd (complex_graph net iso) in
  (weakly_rev (compute_summary net iso r) = true <->
   forall e u v, In e net ->
     nth_error cs u = Some (side_vec net iso (rlhs e)) -> nth_error cs v = Some (side_vec net iso (rrhs e)) ->
     dpath arcs v u).
Proof.
  intros ND cs arcs. destruct (net_weak_rev net iso r) as (_ & W). fold arcs in W. rewrite W.
  destruct (complex_arcs_spec net iso ND) as (_ & A). fold cs arcs in A. split.
  - intros H e u v I Hu Hv. apply H. apply A. eauto.
  - intros H u v I. apply A in I. destruct I as (e & I & Hu & Hv). eapply H; eauto.
Qed.

(** fuel sufficiency, stated on its own: none of the closures the model computes (undirected for the classes, forward and
    backward for strong connectivity) ever runs out of the fuel k + 1 *)
Theorem net_fuel net iso u :
  let arcs := snd (complex_graph net iso) in
  let k := length (fst (complex_graph net iso)) in
  u < k ->
  saturate (und_nbr arcs) (S k) [nn u] <> None /\
  saturate (succs arcs) (S k) [nn u] <> None /\
  saturate (preds arcs) (S k) [nn u] <> None.
Proof.
  intros arcs k Hu. pose proof (complex_graph_arcs_ok net iso) as OK. fold arcs k in OK.
  split; [|split]; apply (saturate_some k); try exact Hu;
    [apply (und_nodes arcs k OK)|apply (succs_nodes arcs k OK)|apply (preds_nodes arcs k OK)].
Qed.

(** A + B <-> C, C -> 2A : one class {0,1,2}; not weakly reversible (2A has no way back) *)
Example ex_linkage_one : linkage_classes ex_arcs 3 = [[2; 1; 0]%N] /\ weakly_reversible ex_arcs 3 = false.
Proof. split; vm_compute; reflexivity. Qed.
Lemma ex_path_0_2 : dpath ex_arcs 0 2.
Proof. apply (dp_step ex_arcs 0 1 2); [apply (dp_step ex_arcs 0 0 1); [constructor|]|]; vm_compute; auto. Qed.
Lemma ex_sink_2 w : ~ In (2, w) ex_arcs.
Proof. vm_compute. intuition congruence. Qed.
(** A + B <-> C alone: weakly reversible; with a second, separate pair D -> E: two classes, not weakly reversible *)
Example ex_linkage_two :
  weakly_reversible [(0, 1); (1, 0)] 2 = true /\
  linkage_classes [(0, 1); (1, 0); (2, 3)] 4 = [[1; 0]%N; [3; 2]%N] /\
  weakly_reversible [(0, 1); (1, 0); (2, 3)] 4 = false /\
  upath ex_arcs 0 2 /\ dpath ex_arcs 0 2 /\ ~ dpath ex_arcs 2 1.
Proof.
  split; [vm_compute; reflexivity|]. split; [vm_compute; reflexivity|]. split; [vm_compute; reflexivity|].
  split; [apply dpath_upath; exact ex_path_0_2|]. split; [exact ex_path_0_2|].
  intros P. apply (dpath_sink _ _ _ ex_sink_2) in P. discriminate.
Qed.
(** fuel: the closure of complex 0 in the example saturates within the fuel 3 + 1 *)
Example ex_fuel : saturate (und_nbr ex_arcs) 4 [nn 0] = Some [2; 1; 0]%N /\ saturate (und_nbr ex_arcs) 1 [nn 0] = None.
Proof. split; vm_compute; reflexivity. Qed.
