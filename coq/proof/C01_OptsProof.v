(** C01 — proofs about model/C01_Opts.v: ITSConstruction.construct for every value of ignore_aromaticity,
    balance_its, store, attributes_defaults; its_decompose on both kinds of ITS.
    Section Gen is the theory of [its_construct_gen] / [dec_side_gen] for any node record; proof/C01_Proof.v
    reads it at the default options. *)
From Coq Require Import List NArith ZArith Bool Lia.
From SK Require Import lib.LGraph lib.C01_GraphLemmas model.C01_Model model.C01_Opts model.C01_Prem.
Import ListNotations.
Local Open Scope Z_scope.

(** * small list facts *)
Lemma NoDup_app_intro {A} (l1 l2 : list A) :
  NoDup l1 -> NoDup l2 -> (forall x, In x l1 -> ~ In x l2) -> NoDup (l1 ++ l2).
Proof.
  induction l1 as [|a l1 IH]; simpl; intros H1 H2 Hd; [exact H2|].
  inversion H1; subst. constructor.
  - rewrite in_app_iff. intros [F|F]; [contradiction|]. apply (Hd a); auto.
  - apply IH; auto.
Qed.

Lemma filter_map_comm {A B} (f : A -> B) (p : A -> bool) (q : B -> bool) (l : list A) :
  (forall x, q (f x) = p x) -> filter q (map f l) = map f (filter p l).
Proof.
  intros H. induction l as [|a l IH]; simpl; [reflexivity|]. rewrite H.
  destruct (p a); simpl; rewrite IH; reflexivity.
Qed.

Lemma lg_eq {A B} (g h : lgraph A B) : gnodes g = gnodes h -> gedges g = gedges h -> g = h.
Proof. destruct g, h. simpl. intros -> ->. reflexivity. Qed.

Lemma gnodes_relabel (f : N -> N) {A B} (g : lgraph A B) : gnodes (relabel f g) = map (fun p => (f (fst p), snd p)) (gnodes g).
Proof. reflexivity. Qed.
Lemma gedges_relabel (f : N -> N) {A B} (g : lgraph A B) :
  gedges (relabel f g) = map (fun e => let '(a, b, x) := e in (f a, f b, x)) (gedges g).
Proof. reflexivity. Qed.

(** * an executable test of well-formedness ([nodupNb], [simpleb] of model/C01_Prem.v) *)
Lemma nodupNb_spec l : nodupNb l = true -> NoDup l.
Proof.
  induction l as [|x r IH]; cbn; intros E; [constructor|]. apply andb_true_iff in E. destruct E as [E1 E2].
  constructor; [|apply IH; exact E2]. intros I. apply mem_spec in I. rewrite I in E1. discriminate.
Qed.

Lemma simpleb_spec {B} (es : list (N * N * B)) : simpleb es = true -> simple es.
Proof.
  induction es as [|[[a b] x] r IH]; cbn; intros E; [constructor|].
  destruct (find_edge a b r) eqn:F; [discriminate|]. constructor; [exact F|apply IH; exact E].
Qed.

Definition wfb {A B} (g : lgraph A B) : bool :=
  nodupNb (node_ids g) &&
  forallb (fun e : N * N * B => mem (fst (fst e)) (node_ids g) && mem (snd (fst e)) (node_ids g) && negb (N.eqb (fst (fst e)) (snd (fst e))))
          (gedges g) &&
  simpleb (gedges g).

Lemma wfb_spec {A B} (g : lgraph A B) : wfb g = true -> wf g.
Proof.
  unfold wfb. intros E. apply andb_true_iff in E. destruct E as [E Es]. apply andb_true_iff in E. destruct E as [En Ee].
  apply wf_intro; [apply nodupNb_spec; exact En| |apply simpleb_spec; exact Es].
  intros a b x I. rewrite forallb_forall in Ee. specialize (Ee _ I). cbn [fst snd] in Ee.
  apply andb_true_iff in Ee. destruct Ee as [Ee Ed]. apply andb_true_iff in Ee. destruct Ee as [Ea Eb].
  apply mem_spec in Ea, Eb. apply negb_true_iff, N.eqb_neq in Ed. auto.
Qed.

(** * order lookups *)
Lemma order_in_sym (G : mgraph) u v : order_in G u v = order_in G v u.
Proof. unfold order_in. rewrite adj_sym. reflexivity. Qed.

Lemma order_in_some (G : mgraph) u v o : adj G u v = Some o -> order_in G u v = o.
Proof. unfold order_in. intros ->. reflexivity. Qed.

Lemma order_in_none (G : mgraph) u v : adj G u v = None -> order_in G u v = 0.
Proof. unfold order_in. intros ->. reflexivity. Qed.
Arguments order_in_some [G u v o] _.
Arguments order_in_none [G u v] _.

Lemma order_in_relabel (f : N -> N) (Hinj : forall a b, f a = f b -> a = b) (G : mgraph) u v :
  order_in (relabel f G) (f u) (f v) = order_in G u v.
Proof. unfold order_in. rewrite (adj_relabel Hinj). reflexivity. Qed.

Lemma orders_pos_adj (G : mgraph) u v o : orders_pos G -> adj G u v = Some o -> 0 < o.
Proof.
  intros P Ad. apply find_edge_some_in in Ad. destruct Ad as [I|I]; eapply P; eauto.
Qed.

Lemma same_nodes_label_none (G H : mgraph) n : same_nodes G H -> label G n = None -> label H n = None.
Proof.
  intros S L. destruct (label H n) eqn:LH; [|reflexivity]. exfalso.
  apply label_some_node, S, node_label_some in LH. destruct LH. congruence.
Qed.

(** * the default instance is the model of C01_Model.v *)
Lemma side_tuple_default G n : side_tuple_o default_opts G n = side_tuple G n.
Proof. reflexivity. Qed.

Lemma std_of_false a b : std_of false a b = a - b.
Proof. reflexivity. Qed.

Lemma construct_default G H : its_construct_o default_opts G H = its_construct G H.
Proof. reflexivity. Qed.

Section Gen.
Variable A : Type.
Variable mk : N -> Z -> A.
Variable o : copts.

(** * the edge list *)
Definition its_edges_o (G H : mgraph) : list (N * N * iedge) :=
  map (fun e => let '(u, v, x) := e in (u, v, mk_iedge_o o x (order_in H u v))) (gedges G)
  ++ map (fun e => let '(u, v, x) := e in (u, v, mk_iedge_o o 0 x)) (filter (absent_in G) (gedges H)).

Lemma gedges_gen G H : gedges (its_construct_gen mk o G H) = its_edges_o G H.
Proof. reflexivity. Qed.

(** G's entries come first, then those of H on pairs that G does not join *)
Lemma find_edge_its_edges_o G H u v :
  find_edge u v (its_edges_o G H) =
  match adj G u v with
  | Some x => Some (mk_iedge_o o x (order_in H u v))
  | None => option_map (mk_iedge_o o 0) (adj H u v)
  end.
Proof.
  unfold its_edges_o, absent_in. rewrite find_edge_app.
  rewrite (find_edge_map_sym (fun a b x => mk_iedge_o o x (order_in H a b)))
    by (intros a b x; rewrite order_in_sym; reflexivity).
  rewrite (find_edge_map_sym (fun _ _ x => mk_iedge_o o 0 x)) by reflexivity.
  rewrite (find_edge_filter_sym (fun a b => match adj G a b with None => true | Some _ => false end))
    by (intros a b; rewrite adj_sym; reflexivity).
  fold (adj G u v). destruct (adj G u v); reflexivity.
Qed.

Lemma gen_adj G H u v :
  adj (its_construct_gen mk o G H) u v =
  match adj G u v, adj H u v with
  | None, None => None
  | _, _ => Some (mk_iedge_o o (order_in G u v) (order_in H u v))
  end.
Proof.
  unfold adj at 1. rewrite gedges_gen, find_edge_its_edges_o. unfold order_in.
  destruct (adj G u v), (adj H u v); reflexivity.
Qed.

Lemma in_its_edges_o G H a b e : In (a, b, e) (its_edges_o G H) ->
  exists x y, e = mk_iedge_o o x y /\ (In (a, b, x) (gedges G) \/ In (a, b, y) (gedges H)).
Proof.
  unfold its_edges_o. rewrite in_app_iff, !in_map_iff.
  intros [([[u v] x] & [= <- <- <-] & I)|([[u v] x] & [= <- <- <-] & I)].
  - exists x, (order_in H u v). auto.
  - apply filter_In in I. exists 0, x. split; [reflexivity|]. right. apply I.
Qed.

Lemma its_edges_o_simple G H : wf G -> wf H -> simple (its_edges_o G H).
Proof.
  intros WG WH. unfold its_edges_o. apply simple_app.
  - apply (simple_map_attr (fun u v (x : Z) => mk_iedge_o o x (order_in H u v))). apply wf_simple. exact WG.
  - apply (simple_map_attr (fun _ _ (x : Z) => mk_iedge_o o 0 x)). apply simple_filter. apply wf_simple. exact WH.
  - intros a b e I. apply in_map_iff in I. destruct I as ([[u v] x] & E & I). inversion E; subst.
    (* a pair that G joins was filtered out of H's list *)
    unfold absent_in. rewrite (find_edge_map_sym (fun _ _ x => mk_iedge_o o 0 x)) by reflexivity.
    rewrite (find_edge_filter_sym (fun a b => match adj G a b with None => true | Some _ => false end))
      by (intros ? ?; rewrite adj_sym; reflexivity).
    rewrite (wf_in_adj WG I). reflexivity.
Qed.

(** * the node list *)
Definition base_o (G H : mgraph) := if base_is_G_o o G H then G else H.
Definition other_o (G H : mgraph) := if base_is_G_o o G H then H else G.

Lemma gen_label G H n :
  label (its_construct_gen mk o G H) n =
  match label (base_o G H) n with
  | Some a => Some (mk n (g_amap a))
  | None => match label (other_o G H) n with
            | Some a => Some (mk n (g_amap a))
            | None => None
            end
  end.
Proof.
  unfold label at 1, its_construct_gen. simpl. fold (base_o G H). fold (other_o G H).
  rewrite (assoc_map_val (fun k (v : gnode) => mk k (g_amap v))), assoc_app.
  fold (label (base_o G H) n). destruct (label (base_o G H) n) as [a|] eqn:Lb; simpl; [reflexivity|].
  rewrite (assoc_filter (fun k => negb (has_node (base_o G H) k))).
  unfold has_node. rewrite Lb. simpl. fold (label (other_o G H) n).
  destruct (label (other_o G H) n); reflexivity.
Qed.

Lemma base_other_cases G H : (base_o G H = G /\ other_o G H = H) \/ (base_o G H = H /\ other_o G H = G).
Proof. unfold base_o, other_o. destruct (base_is_G_o o G H); auto. Qed.

Lemma gen_node_ids G H n :
  In n (node_ids (its_construct_gen mk o G H)) <-> In n (node_ids G) \/ In n (node_ids H).
Proof.
  rewrite <- !has_node_spec. unfold has_node. rewrite gen_label.
  destruct (base_other_cases G H) as [[-> ->]|[-> ->]]; destruct (label G n), (label H n); intuition discriminate.
Qed.

(** every node of the ITS is [mk n amap] where amap is the atom_map of the base graph's node, or of the
    other graph's node when the base has no such node *)
Lemma gen_label_mk G H n a : label (its_construct_gen mk o G H) n = Some a ->
  exists m, a = mk n m /\
    ((exists b, label (base_o G H) n = Some b /\ m = g_amap b) \/
     (label (base_o G H) n = None /\ exists b, label (other_o G H) n = Some b /\ m = g_amap b)).
Proof.
  rewrite gen_label. intros L.
  destruct (label (base_o G H) n) as [b|] eqn:Lb.
  - inversion L. exists (g_amap b). split; [reflexivity|]. left. eauto.
  - destruct (label (other_o G H) n) as [b|] eqn:Lo; [|discriminate].
    inversion L. exists (g_amap b). split; [reflexivity|]. right. eauto.
Qed.

Lemma gen_nodup G H : wf G -> wf H -> NoDup (node_ids (its_construct_gen mk o G H)).
Proof.
  intros WG WH. unfold node_ids, its_construct_gen. simpl. fold (base_o G H). fold (other_o G H).
  rewrite (map_fst_map_val (fun k (v : gnode) => mk k (g_amap v))), map_app.
  assert (NoDup (node_ids (base_o G H)) /\ NoDup (node_ids (other_o G H))) as [Nb No].
  { destruct (base_other_cases G H) as [[-> ->]|[-> ->]]; split; first [apply WG|apply WH]. }
  apply NoDup_app_intro.
  - exact Nb.
  - apply NoDup_map_fst_filter. exact No.
  - intros x Ix F. apply in_map_iff in F. destruct F as ([k a] & E & F). simpl in E. subst.
    apply filter_In in F. destruct F as [_ F]. simpl in F.
    apply has_node_spec in Ix. rewrite Ix in F. discriminate.
Qed.

Lemma gen_wf G H : wf G -> wf H -> wf (its_construct_gen mk o G H).
Proof.
  intros WG WH. apply wf_intro.
  - apply gen_nodup; assumption.
  - intros a b e I. rewrite gedges_gen in I. rewrite !gen_node_ids.
    destruct (in_its_edges_o G H a b e I) as (x & y & _ & [J|J]).
    + destruct (wf_edge_nodes WG J) as (Ha & Hb & Hab). tauto.
    + destruct (wf_edge_nodes WH J) as (Ha & Hb & Hab). tauto.
  - rewrite gedges_gen. apply its_edges_o_simple; assumption.
Qed.

Lemma gen_std G H : std_consistent_o (o_ia o) (its_construct_gen mk o G H).
Proof.
  intros u v e I. rewrite gedges_gen in I. destruct (in_its_edges_o G H u v e I) as (x & y & -> & _). reflexivity.
Qed.

(** * decompose, generic in the node record *)
Variable sG sH : A -> nattr.

Lemma decg_label sn se (I : lgraph A iedge) n :
  label (dec_side_gen sn se I) n = option_map (fun a => dec_node (sn a) n) (label I n).
Proof.
  unfold label, dec_side_gen. simpl. apply (assoc_map_val (fun k (a : A) => dec_node (sn a) k)).
Qed.

Lemma in_decg_edges sn se (I : lgraph A iedge) a b x :
  In (a, b, x) (gedges (dec_side_gen sn se I)) <-> exists y, In (a, b, y) (gedges I) /\ 0 < se y /\ x = se y.
Proof.
  unfold dec_side_gen. simpl. rewrite in_flat_map. split.
  - intros ([[u v] y] & I1 & I2). destruct (0 <? se y) eqn:P; [|destruct I2].
    destruct I2 as [E|[]]. inversion E; subst. apply Z.ltb_lt in P. eauto.
  - intros (y & I1 & P & ->). exists (a, b, y). split; [exact I1|]. apply Z.ltb_lt in P. rewrite P. left. reflexivity.
Qed.

Lemma decg_adj sn se (I : lgraph A iedge) u v : consistent (gedges I) ->
  adj (dec_side_gen sn se I) u v =
  match adj I u v with Some x => if 0 <? se x then Some (se x) else None | None => None end.
Proof.
  intros Hc.
  assert (consistent (gedges (dec_side_gen sn se I))) as Hd.
  { intros a b x y Hx Hy.
    assert (forall z, In (a, b, z) (gedges (dec_side_gen sn se I)) \/ In (b, a, z) (gedges (dec_side_gen sn se I)) ->
                      exists w, (In (a, b, w) (gedges I) \/ In (b, a, w) (gedges I)) /\ z = se w) as D.
    { intros z [F|F]; apply in_decg_edges in F; destruct F as (w & F & _ & ->); eauto. }
    destruct (D x Hx) as (w1 & I1 & ->), (D y Hy) as (w2 & I2 & ->). f_equal. eapply Hc; eauto. }
  apply option_ext. intros x. unfold adj at 1. rewrite (find_edge_iff Hd), !in_decg_edges. split.
  - intros [(y & I1 & P & ->)|(y & I1 & P & ->)].
    + assert (adj I u v = Some y) as -> by (apply (find_edge_iff Hc); auto).
      apply Z.ltb_lt in P. rewrite P. reflexivity.
    + assert (adj I u v = Some y) as -> by (apply (find_edge_iff Hc); auto).
      apply Z.ltb_lt in P. rewrite P. reflexivity.
  - destruct (adj I u v) as [y|] eqn:Ad; [|discriminate].
    destruct (0 <? se y) eqn:P; [|discriminate]. intros [= <-]. apply Z.ltb_lt in P.
    apply (find_edge_iff Hc) in Ad. destruct Ad as [Ad|Ad]; [left|right]; eauto.
Qed.

Lemma decg_amap_id sn se (I : lgraph A iedge) : amap_id (dec_side_gen sn se I).
Proof.
  intros n a L. rewrite decg_label in L. destruct (label I n); inversion L. reflexivity.
Qed.

(** * round trip, for every node record whose typesGH halves are the two side tuples *)
(** a stored order is positive and passes the test of decompose; an absent pair reads as order 0 and is dropped *)
Lemma pos_order_kept (G : mgraph) u v : orders_pos G ->
  (if 0 <? order_in G u v then Some (order_in G u v) else None) = adj G u v.
Proof.
  intros P. unfold order_in. destruct (adj G u v) as [x|] eqn:Ad; [|reflexivity].
  apply (orders_pos_adj _ _ _ _ P), Z.ltb_lt in Ad. rewrite Ad. reflexivity.
Qed.

Lemma gen_roundtrip_adj G H : wf G -> wf H -> orders_pos G -> orders_pos H ->
  forall u v,
    adj (dec_side_gen sG e_G (its_construct_gen mk o G H)) u v = adj G u v /\
    adj (dec_side_gen sH e_H (its_construct_gen mk o G H)) u v = adj H u v.
Proof.
  intros WG WH PG PH u v.
  assert (consistent (gedges (its_construct_gen mk o G H))) as Hc
    by (apply simple_consistent, its_edges_o_simple; assumption).
  rewrite !(decg_adj _ _ _ _ _ Hc), (gen_adj G H u v).
  pose proof (pos_order_kept G u v PG) as KG. pose proof (pos_order_kept H u v PH) as KH.
  unfold order_in in *. destruct (adj G u v), (adj H u v); exact (conj KG KH).
Qed.

Lemma gen_roundtrip_labels G H :
  (forall n m, sG (mk n m) = side_tuple_o o G n /\ sH (mk n m) = side_tuple_o o H n) ->
  wf G -> wf H -> same_nodes G H ->
  forall n,
    option_map sel4 (label (dec_side_gen sG e_G (its_construct_gen mk o G H)) n) = option_map sel4 (label G n) /\
    option_map sel4 (label (dec_side_gen sH e_H (its_construct_gen mk o G H)) n) = option_map sel4 (label H n).
Proof.
  intros Hmk WG WH S n. rewrite !decg_label.
  destruct (label (its_construct_gen mk o G H) n) as [a|] eqn:L.
  - destruct (gen_label_mk G H n a L) as (m & -> & _). simpl.
    destruct (Hmk n m) as [-> ->].
    assert (In n (node_ids G)) as IG.
    { apply label_some_node in L. apply gen_node_ids in L. destruct L as [L|L]; [exact L|apply S; exact L]. }
    pose proof (proj1 (S n) IG) as IH. apply node_label_some in IG, IH.
    destruct IG as (ag & LG), IH as (ah & LH). unfold side_tuple_o. rewrite LG, LH. split; reflexivity.
  - assert (label G n = None) as LG.
    { destruct (label G n) eqn:LG; [|reflexivity]. exfalso.
      assert (In n (node_ids (its_construct_gen mk o G H))) as I by (apply gen_node_ids; left; eapply label_some_node; eauto).
      apply node_label_some in I. destruct I. congruence. }
    rewrite LG, (same_nodes_label_none _ _ _ S LG). split; reflexivity.
Qed.

Lemma gen_roundtrip G H :
  (forall n m, sG (mk n m) = side_tuple_o o G n /\ sH (mk n m) = side_tuple_o o H n) ->
  wf G -> wf H -> same_nodes G H -> orders_pos G -> orders_pos H ->
  let g := dec_side_gen sG e_G (its_construct_gen mk o G H) in
  let h := dec_side_gen sH e_H (its_construct_gen mk o G H) in
  geq_sel g G /\ amap_id g /\ geq_sel h H /\ amap_id h.
Proof.
  intros Hmk WG WH S PG PH g h.
  pose proof (gen_roundtrip_labels G H Hmk WG WH S) as L. pose proof (gen_roundtrip_adj G H WG WH PG PH) as Ad.
  split; [split; intros; [apply L|apply Ad]|]. split; [apply decg_amap_id|].
  split; [split; intros; [apply L|apply Ad]|apply decg_amap_id].
Qed.

End Gen.

Theorem roundtrip_opts (o : copts) G H : wf G -> wf H -> same_nodes G H -> orders_pos G -> orders_pos H ->
  let D := its_decompose (its_construct_o o G H) in
  let DS := its_decompose_S (its_construct_S o G H) in
  (geq_sel (fst D) G /\ amap_id (fst D) /\ geq_sel (snd D) H /\ amap_id (snd D)) /\
  (geq_sel (fst DS) G /\ amap_id (fst DS) /\ geq_sel (snd DS) H /\ amap_id (snd DS)).
Proof.
  intros WG WH S PG PH. split.
  - apply (gen_roundtrip inode (its_node_o o G H) o i_G i_H); auto.
  - apply (gen_roundtrip inodeS (its_node_S o G H) o s_G s_H); auto.
Qed.

Lemma std_of_zero_iff ia a b : std_of ia a b = 0 <-> a = b \/ (ia = true /\ Z.abs (a - b) < 2).
Proof.
  unfold std_of. destruct ia; simpl.
  - destruct (Z.abs (a - b) <? 2) eqn:E.
    + apply Z.ltb_lt in E. split; [intros _; right; split; [reflexivity|exact E]|reflexivity].
    + apply Z.ltb_ge in E. split; [intros D; left; lia|intros [->|[_ F]]; lia].
  - split; [intros D; left; lia|intros [->|[F _]]; [lia|discriminate]].
Qed.

Theorem union_opts (o : copts) G H : wf G -> wf H ->
  let I := its_construct_o o G H in
  let J := its_construct_S o G H in
  let base := if base_is_G_o o G H then G else H in
  let other := if base_is_G_o o G H then H else G in
  (forall n, (In n (node_ids I) <-> In n (node_ids G) \/ In n (node_ids H)) /\
             (In n (node_ids J) <-> In n (node_ids G) \/ In n (node_ids H))) /\
  (forall n a, label I n = Some a ->
     i_G a = side_tuple_o o G n /\ i_H a = side_tuple_o o H n /\
     i_el a = a_el (i_G a) /\ i_ch a = a_ch (i_G a) /\
     i_extra a = Some (a_arom (i_G a), a_hc (i_G a), a_nb (i_G a)) /\
     ((exists b, label base n = Some b /\ i_amap a = g_amap b) \/
      (label base n = None /\ exists b, label other n = Some b /\ i_amap a = g_amap b))) /\
  (forall n a, label J n = Some a ->
     s_G a = side_tuple_o o G n /\ s_H a = side_tuple_o o H n /\
     s_el a = (a_el (s_G a), a_el (s_H a)) /\ s_arom a = (a_arom (s_G a), a_arom (s_H a)) /\
     s_hc a = (a_hc (s_G a), a_hc (s_H a)) /\ s_ch a = (a_ch (s_G a), a_ch (s_H a)) /\
     s_nb a = (a_nb (s_G a), a_nb (s_H a)) /\
     ((exists b, label base n = Some b /\ s_amap a = g_amap b) \/
      (label base n = None /\ exists b, label other n = Some b /\ s_amap a = g_amap b))) /\
  (forall u v a b s, (adj I u v = Some (IE a b s) <->
      a = order_in G u v /\ b = order_in H u v /\ (adj G u v <> None \/ adj H u v <> None) /\ s = std_of (o_ia o) a b)) /\
  (forall u v, adj J u v = adj I u v) /\
  std_consistent_o (o_ia o) I /\ std_consistent_o (o_ia o) J /\ wf I /\ wf J.
Proof.
  intros WG WH I J base other. subst I J base other. unfold its_construct_o, its_construct_S.
  split; [|split; [|split; [|split; [|split; [|split; [|split; [|split]]]]]]].
  - intros n. split; apply gen_node_ids.
  - intros n a L. destruct (gen_label_mk _ _ o G H n a L) as (m & -> & Hm). cbn.
    repeat (split; [reflexivity|]). exact Hm.
  - intros n a L. destruct (gen_label_mk _ _ o G H n a L) as (m & -> & Hm). cbn.
    repeat (split; [reflexivity|]). exact Hm.
  - intros u v a b s. rewrite (gen_adj _ _ o G H u v). split.
    + intros E.
      assert (IE a b s = mk_iedge_o o (order_in G u v) (order_in H u v) /\ (adj G u v <> None \/ adj H u v <> None)) as [E' Hex].
      { destruct (adj G u v), (adj H u v); inversion E; (split; [reflexivity|]); [left|left|right]; discriminate. }
      inversion E'; subst. auto.
    + intros (-> & -> & Hex & ->).
      destruct (adj G u v), (adj H u v); try reflexivity. destruct Hex; congruence.
  - intros u v. rewrite !(gen_adj _ _ o G H u v). reflexivity.
  - apply gen_std.
  - apply gen_std.
  - apply gen_wf; assumption.
  - apply gen_wf; assumption.
Qed.

(** what ignore_aromaticity does to C02's hypothesis: for ia = false the ITS is std_consistent; for ia = true
    standard_order is zero exactly on the bonds whose orders differ by less than one unit *)
Theorem std_opts (o : copts) G H :
  (o_ia o = false -> std_consistent (its_construct_o o G H)) /\
  (forall u v x, In (u, v, x) (gedges (its_construct_o o G H)) ->
     (e_std x = 0 <-> e_G x = e_H x \/ (o_ia o = true /\ Z.abs (e_G x - e_H x) < 2)) /\
     (e_std x <> 0 -> e_std x = e_G x - e_H x)).
Proof.
  split.
  - intros E u v x I. rewrite (gen_std _ (its_node_o o G H) o G H u v x I), E. reflexivity.
  - intros u v x I. rewrite (gen_std _ (its_node_o o G H) o G H u v x I). split; [apply std_of_zero_iff|].
    unfold std_of. destruct (o_ia o && (Z.abs (e_G x - e_H x) <? 2)); [intros F; contradiction F|]; reflexivity.
Qed.

(** with ignore_aromaticity the ITS is NOT std_consistent: aromatic bond (1.5) becoming a single bond *)
Definition ia_G : mgraph := LG [(1%N, GN 70%N true 1 0 None 1); (2%N, GN 70%N true 1 0 None 2)] [(1%N, 2%N, 3)].
Definition ia_H : mgraph := LG [(1%N, GN 70%N false 2 0 None 1); (2%N, GN 70%N false 2 0 None 2)] [(1%N, 2%N, 2)].
Definition ia_opts : copts := CO true false dflt_nattr.

Lemma ia_wf : wf ia_G /\ wf ia_H.
Proof. split; apply wfb_spec; reflexivity. Qed.

Theorem ia_not_std_consistent :
  exists G H : mgraph, wf G /\ wf H /\ same_nodes G H /\ orders_pos G /\ orders_pos H /\
    ~ std_consistent (its_construct_o (CO true false dflt_nattr) G H) /\
    adj (its_construct_o (CO true false dflt_nattr) G H) 1%N 2%N = Some (IE 3 2 0).
Proof.
  exists ia_G, ia_H. destruct ia_wf as [W1 W2].
  split; [exact W1|]. split; [exact W2|].
  split; [intros n; reflexivity|].
  split; [intros u v x [E|[]]; inversion E; lia|].
  split; [intros u v x [E|[]]; inversion E; lia|].
  split; [|reflexivity].
  intros S. specialize (S 1%N 2%N (IE 3 2 0)). simpl in S. assert (0 = 3 - 2) as F by (apply S; left; reflexivity). discriminate.
Qed.

Section EquivariantO.
Variable f : N -> N.
Hypothesis Hinj : forall a b, f a = f b -> a = b.
Variable o : copts.

Lemma side_tuple_o_relabel (G : mgraph) n : side_tuple_o o (relabel f G) (f n) = side_tuple_o o G n.
Proof. unfold side_tuple_o. rewrite (label_relabel Hinj). reflexivity. Qed.

Lemma base_is_G_o_relabel (G H : mgraph) : base_is_G_o o (relabel f G) (relabel f H) = base_is_G_o o G H.
Proof. unfold base_is_G_o, relabel. simpl. rewrite !map_length. reflexivity. Qed.

Lemma its_edges_o_equivariant G H :
  its_edges_o o (relabel f G) (relabel f H) = map (fun e => let '(a, b, x) := e in (f a, f b, x)) (its_edges_o o G H).
Proof.
  unfold its_edges_o. rewrite map_app, !(gedges_relabel f). f_equal.
  - rewrite !map_map. apply map_ext. intros [[u v] x]. rewrite (order_in_relabel f Hinj). reflexivity.
  - rewrite (filter_map_comm (fun e : N * N * Z => let '(a, b, x) := e in (f a, f b, x)) (absent_in G)).
    + rewrite !map_map. apply map_ext. intros [[u v] x]. reflexivity.
    + intros [[u v] x]. simpl. rewrite (adj_relabel Hinj). reflexivity.
Qed.

Lemma gen_equivariant {A} (mk mk' : N -> Z -> A) G H :
  (forall n m, mk' (f n) m = mk n m) ->
  its_construct_gen mk' o (relabel f G) (relabel f H) = relabel f (its_construct_gen mk o G H).
Proof.
  intros Hmk. apply lg_eq.
  - rewrite (gnodes_relabel f). unfold its_construct_gen. cbn [gnodes]. rewrite base_is_G_o_relabel.
    assert (forall base other : mgraph,
      map (fun p => (fst p, mk' (fst p) (g_amap (snd p))))
          (gnodes (relabel f base) ++ filter (fun p => negb (has_node (relabel f base) (fst p))) (gnodes (relabel f other))) =
      map (fun p => (f (fst p), snd p))
          (map (fun p => (fst p, mk (fst p) (g_amap (snd p))))
               (gnodes base ++ filter (fun p => negb (has_node base (fst p))) (gnodes other)))) as E.
    { intros base other. rewrite !(gnodes_relabel f).
      rewrite (filter_map_comm (fun p : N * gnode => (f (fst p), snd p)) (fun p => negb (has_node base (fst p)))).
      - rewrite <- map_app, !map_map. apply map_ext. intros [k a]. cbn [fst snd]. rewrite Hmk. reflexivity.
      - intros [k a]. cbn [fst snd]. rewrite (has_node_relabel Hinj). reflexivity. }
    destruct (base_is_G_o o G H); apply E.
  - rewrite (gedges_relabel f). apply its_edges_o_equivariant.
Qed.

Lemma decg_side_equivariant {A} (sn : A -> nattr) se (I : lgraph A iedge) :
  dec_side_gen sn se (relabel f I) = set_amap (relabel f (dec_side_gen sn se I)).
Proof.
  unfold dec_side_gen, set_amap, relabel. cbn [gnodes gedges]. f_equal.
  - rewrite !map_map. apply map_ext. intros [k a]. reflexivity.
  - induction (gedges I) as [|[[u v] x] r IH]; [reflexivity|]. cbn [map flat_map].
    rewrite map_app, IH. destruct (0 <? se x); reflexivity.
Qed.
End EquivariantO.

Lemma construct_o_equivariant (f : N -> N) (Hinj : forall a b, f a = f b -> a = b) o G H :
  its_construct_o o (relabel f G) (relabel f H) = relabel f (its_construct_o o G H).
Proof.
  apply (gen_equivariant f Hinj). intros n m. unfold its_node_o. rewrite !(side_tuple_o_relabel f Hinj). reflexivity.
Qed.

Theorem equivariant_opts (f : N -> N) : (forall a b, f a = f b -> a = b) -> forall (o : copts) (G H : mgraph) (J : itsS),
  its_construct_o o (relabel f G) (relabel f H) = relabel f (its_construct_o o G H) /\
  its_construct_S o (relabel f G) (relabel f H) = relabel f (its_construct_S o G H) /\
  its_decompose_S (relabel f J) =
    (set_amap (relabel f (fst (its_decompose_S J))), set_amap (relabel f (snd (its_decompose_S J)))).
Proof.
  intros Hinj o G H J. split; [|split].
  - apply construct_o_equivariant. exact Hinj.
  - apply (gen_equivariant f Hinj). intros n m. unfold its_node_S. rewrite !(side_tuple_o_relabel f Hinj). reflexivity.
  - unfold its_decompose_S. cbn [fst snd]. rewrite !(decg_side_equivariant f). reflexivity.
Qed.

(** * non-vacuity *)
Definition ex_opts : copts := CO true true (NA 0%N false 0 0 []).
Example C01_opts_nonvacuous :
  wf ia_G /\ wf ia_H /\ same_nodes ia_G ia_H /\ orders_pos ia_G /\ orders_pos ia_H /\
  adj (its_construct_o ex_opts ia_G ia_H) 1%N 2%N = Some (IE 3 2 0) /\
  adj (its_construct_o default_opts ia_G ia_H) 1%N 2%N = Some (IE 3 2 1) /\
  gedges (snd (its_decompose (its_construct_o ex_opts ia_G ia_H))) = gedges ia_H /\
  option_map s_arom (label (its_construct_S ex_opts ia_G ia_H) 1%N) = Some (true, false) /\
  option_map (fun a => a_nb (i_G a)) (label (its_construct_o ex_opts ia_G ia_H) 1%N) = Some [] /\
  option_map (fun a => a_nb (i_G a)) (label (its_construct_o default_opts ia_G ia_H) 1%N) = Some [EL_EMPTY; EL_EMPTY].
Proof.
  destruct ia_wf as [W1 W2].
  split; [exact W1|]. split; [exact W2|]. split; [intros n; reflexivity|].
  split; [intros u v x [E|[]]; inversion E; lia|]. split; [intros u v x [E|[]]; inversion E; lia|].
  repeat apply conj; vm_compute; reflexivity.
Qed.

Example C01_equivariant_opts_nonvacuous :
  its_construct_S ex_opts (relabel (N.add 10) ia_G) (relabel (N.add 10) ia_H) = relabel (N.add 10) (its_construct_S ex_opts ia_G ia_H) /\
  relabel (N.add 10) (its_construct_S ex_opts ia_G ia_H) <> its_construct_S ex_opts ia_G ia_H.
Proof.
  split; [apply equivariant_opts; [intros a b; apply N.add_cancel_l|exact (LG [] [])]|]. intros E. vm_compute in E. discriminate.
Qed.
