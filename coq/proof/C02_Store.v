(** C02 — proofs about get_rc on ITS graphs with pair-valued labels (model/C02_Store.v):
    lock-step agreement of the generic [get_rc_g] with [get_rc_x] on the flattened graph; the centre atoms carry the selected
    ITS labels UNCHANGED (pairs stay pairs); the bonds of the centre for every label shape (a hydrogen is "H" or the pair
    ("H", "H")); the flattened centre of a store=True ITS is the centre of its store=False twin. *)
From Coq Require Import List NArith ZArith Bool.
From SK Require Import lib.LGraph lib.C01_GraphLemmas model.C01_Model model.C01_Opts model.C02_Model model.C02_Store
                       proof.C02_Opts proof.C02_Wfb.
Import ListNotations.
Local Open Scope Z_scope.

(** relabel the node VALUES of a graph, edges untouched *)
Definition gmapn {A A' B} (f : A -> A') (g : lgraph A B) : lgraph A' B :=
  LG (map (fun p => (fst p, f (snd p))) (gnodes g)) (gedges g).

Lemma label_gmapn {A A' B} (f : A -> A') (g : lgraph A B) n : label (gmapn f g) n = option_map f (label g n).
Proof. unfold label, gmapn. simpl. apply (assoc_map_val (fun _ a => f a)). Qed.
Lemma node_ids_gmapn {A A' B} (f : A -> A') (g : lgraph A B) : node_ids (gmapn f g) = node_ids g.
Proof. unfold node_ids, gmapn. simpl. rewrite map_map. reflexivity. Qed.
Lemma wf_gmapn {A A' B} (f : A -> A') (g : lgraph A B) : wf g -> wf (gmapn f g).
Proof.
  intros (W1 & W2 & W3). unfold wf. rewrite node_ids_gmapn. split; [exact W1|]. split; [exact W2|exact W3].
Qed.

(** * get_rc_g commutes with every map of node labels that commutes with the two selections and keeps the two tests *)
Section Map.
Context {A A' : Type}.
Variables (sel selhh : A -> A) (ish cc : A -> bool) (sel' selhh' : A' -> A') (ish' cc' : A' -> bool).
Variable fl : A -> A'.
Hypothesis Hsel : forall a, fl (sel a) = sel' (fl a).
Hypothesis Hselhh : forall a, fl (selhh a) = selhh' (fl a).
Hypothesis Hish : forall a, ish' (fl a) = ish a.
Hypothesis Hcc : forall a, cc' (fl a) = cc a.

Definition fmap (ns : list (N * A)) : list (N * A') := map (fun p => (fst p, fl (snd p))) ns.
Definition fmap_st (st : state_g A) : state_g A' := (fmap (fst st), snd st).

Lemma has_key_fmap n ns : has_key_g n (fmap ns) = has_key_g n ns.
Proof. unfold has_key_g, fmap. rewrite (assoc_map_val (fun _ a => fl a)). destruct (assoc n ns); reflexivity. Qed.

Lemma ensure_fmap (f : A -> A) (f' : A' -> A') (g : lgraph A xedge) n ns : (forall a, fl (f a) = f' (fl a)) ->
  ensure_g f' (gmapn fl g) n (fmap ns) = fmap (ensure_g f g n ns).
Proof.
  intros Hf. unfold ensure_g. rewrite has_key_fmap, label_gmapn.
  destruct (has_key_g n ns); [reflexivity|]. destruct (label g n) as [a|]; simpl; [|reflexivity].
  unfold fmap. rewrite map_app. simpl. rewrite Hf. reflexivity.
Qed.

Lemma is_hh_fmap (g : lgraph A xedge) u v : is_hh_g ish' (gmapn fl g) u v = is_hh_g ish g u v.
Proof.
  unfold is_hh_g, is_h_g. rewrite !label_gmapn.
  destruct (label g u) as [a|]; destruct (label g v) as [b|]; simpl; rewrite ?Hish; reflexivity.
Qed.

Lemma fold_changed_fmap m (g : lgraph A xedge) L : forall st,
  fold_left (step_changed_g sel' m (gmapn fl g)) L (fmap_st st) = fmap_st (fold_left (step_changed_g sel m g) L st).
Proof.
  induction L as [|[[u v] x] L IH]; intros st; [reflexivity|]. cbn [fold_left]. rewrite <- IH. f_equal.
  unfold step_changed_g. destruct (include_x m x); [|reflexivity]. unfold fmap_st. simpl.
  rewrite !(ensure_fmap sel sel' g _ _ Hsel). reflexivity.
Qed.

Lemma fold_hh_fmap (g : lgraph A xedge) L : forall st,
  fold_left (step_hh_g selhh' ish' (gmapn fl g)) L (fmap_st st) = fmap_st (fold_left (step_hh_g selhh ish g) L st).
Proof.
  induction L as [|[[u v] x] L IH]; intros st; [reflexivity|]. cbn [fold_left]. rewrite <- IH. f_equal.
  unfold step_hh_g. rewrite is_hh_fmap. destruct (is_hh_g ish g u v); [|reflexivity]. unfold fmap_st. simpl.
  rewrite !(ensure_fmap selhh selhh' g _ _ Hselhh). reflexivity.
Qed.

Lemma fold_charge_fmap L : forall ns,
  fold_left (step_charge_g sel' cc') (fmap L) (fmap ns) = fmap (fold_left (step_charge_g sel cc) L ns).
Proof.
  induction L as [|[n a] L IH]; intros ns; [reflexivity|]. cbn [fold_left fmap map]. fold (fmap L). rewrite <- IH. f_equal.
  unfold step_charge_g. simpl. rewrite has_key_fmap, Hcc.
  destruct (cc a && negb (has_key_g n ns)); [|reflexivity]. unfold fmap. rewrite map_app. simpl. rewrite Hsel. reflexivity.
Qed.

Lemma fold_reconnect_fmap ns L : forall es,
  fold_left (step_reconnect_g (fmap ns)) L es = fold_left (step_reconnect_g ns) L es.
Proof.
  induction L as [|[[u v] x] L IH]; intros es; [reflexivity|]. cbn [fold_left]. rewrite <- IH. f_equal.
  unfold step_reconnect_g. rewrite !has_key_fmap. reflexivity.
Qed.

Theorem get_rc_g_map d m (g : lgraph A xedge) :
  gmapn fl (get_rc_g sel selhh ish cc d m g) = get_rc_g sel' selhh' ish' cc' d m (gmapn fl g).
Proof.
  unfold get_rc_g. cbv zeta. change (gedges (gmapn fl g)) with (gedges g).
  change (gnodes (gmapn fl g)) with (fmap (gnodes g)).
  change (@nil (N * A'), @nil (N * N * xedge)) with (fmap_st ([], [])).
  rewrite fold_changed_fmap, fold_hh_fmap. unfold fmap_st. cbn [fst snd].
  destruct d; [|reflexivity]. rewrite fold_charge_fmap, fold_reconnect_fmap. reflexivity.
Qed.
End Map.

(** * the instance for pair-valued labels *)
Lemma pick_map {T U} (f : T -> U) b o : pick b (option_map f o) = option_map f (pick b o).
Proof. destruct b; reflexivity. Qed.

Lemma flat_sel K a : flat (selS K a) = sel_attr K (flat a).
Proof. unfold flat, selS, sel_attr. simpl. rewrite !pick_map. reflexivity. Qed.
Lemma flat_sel_hh K a : flat (selS_hh K a) = sel_attr_hh K (flat a).
Proof. unfold flat, selS_hh, sel_attr_hh. simpl. rewrite !pick_map. reflexivity. Qed.
Lemma fl_el_ish l : ish_lab l = N.eqb (fl_el l) EL_H.
Proof.
  destruct l as [e|p q]; simpl; [reflexivity|].
  destruct (N.eqb p EL_H) eqn:Ep; destruct (N.eqb q EL_H) eqn:Eq; simpl; try reflexivity; rewrite ?Ep; reflexivity.
Qed.
Lemma flat_ish a : ish_x (flat a) = ish_S a.
Proof. unfold ish_x, ish_S, flat. simpl. destruct (n_el a) as [l|]; simpl; [symmetry; apply fl_el_ish|reflexivity]. Qed.

Theorem rcS_flat K d m (g : sits) : gmapn flat (get_rc_S K d m g) = get_rc_x K d m (gmapn flat g).
Proof. apply get_rc_g_map; [apply flat_sel|apply flat_sel_hh|apply flat_ish|reflexivity]. Qed.

(** "with their ITS labels": every selected label of a centre atom IS the ITS atom's label — a pair stays that pair *)
Theorem rcS_labels K d m (g : sits) : NoDup (node_ids g) -> forall n b, label (get_rc_S K d m g) n = Some b ->
  exists a, label g n = Some a /\
    n_el b = pick (k_el K) (n_el a) /\ n_ch b = pick (k_ch K) (n_ch a) /\ n_amap b = pick (k_amap K) (n_amap a) /\
    n_arom b = pick (k_arom K) (n_arom a) /\ n_hc b = pick (k_hc K) (n_hc a) /\ n_nb b = pick (k_nb K) (n_nb a) /\
    (n_gh b = pick (k_gh K) (n_gh a) \/ n_gh b = Some (match n_gh a with Some t => t | None => HH_FALLBACK end)).
Proof.
  intros Hnd n b L. destruct (rcg_labels (selS K) (selS_hh K) ish_S cc_S d m g Hnd n b L) as (a & La & [-> | ->]);
    exists a; (split; [exact La|]); simpl; repeat split; auto.
Qed.

(** the bonds of the centre, for every option setting and every label shape: a bond is in the centre with the attributes
    [out_edge] iff it is included (changed, or flagged under keep_mtg) or BOTH ATOMS ARE HYDROGENS — the scalar "H" or the pair
    ("H", "H") —; under disconnected additionally every other ITS bond between centre atoms, with [out_edge_rec] *)
Theorem rcS_edges K d m (g : sits) : wf g -> forall u v y,
  adj (get_rc_S K d m g) u v = Some y <->
  exists x, adj g u v = Some x /\
    (((include_x m x = true \/ is_hh_g ish_S g u v = true) /\ y = out_edge x) \/
     (include_x m x = false /\ is_hh_g ish_S g u v = false /\ d = true /\
      In u (node_ids (get_rc_S K d m g)) /\ In v (node_ids (get_rc_S K d m g)) /\ y = out_edge_rec x)).
Proof. exact (rcg_edges (selS K) (selS_hh K) ish_S cc_S d m g). Qed.

(** hydrogens of a store=True ITS: both sides of the element pair are "H" *)
Lemma is_h_emb_S (g : itsS) n :
  is_h_g ish_S (emb_S g) n = match label g n with Some a => N.eqb (fst (s_el a)) EL_H && N.eqb (snd (s_el a)) EL_H | None => false end.
Proof.
  unfold is_h_g, emb_S. rewrite label_gmap. destruct (label g n); reflexivity.
Qed.

(** on a store=True ITS (disconnected=False): the centre bonds are the included bonds and the bonds between two atoms whose
    element pair is ("H", "H") *)
Theorem rcS_store_true_bonds K m (g : itsS) : wf g -> forall u v y,
  adj (get_rc_S K false m (emb_S g)) u v = Some y <->
  exists x, adj g u v = Some x /\
    (include_x m (x, None) = true \/
     (exists a b, label g u = Some a /\ label g v = Some b /\ s_el a = (EL_H, EL_H) /\ s_el b = (EL_H, EL_H))) /\
    y = (x, Some false).
Proof.
  intros W u v y.
  assert (wf (emb_S g)) as W' by (apply wf_gmap; exact W).
  rewrite (rcS_edges K false m (emb_S g) W').
  assert (adj (emb_S g) u v = option_map (fun x : iedge => (x, @None bool)) (adj g u v)) as A by apply adj_gmap.
  assert (is_hh_g ish_S (emb_S g) u v = true <->
          exists a b, label g u = Some a /\ label g v = Some b /\ s_el a = (EL_H, EL_H) /\ s_el b = (EL_H, EL_H)) as Hh.
  { unfold is_hh_g. rewrite !is_h_emb_S. split.
    - intros H. apply andb_true_iff in H. destruct H as [Hu Hv].
      destruct (label g u) as [a|]; [|discriminate]. destruct (label g v) as [b|]; [|discriminate].
      apply andb_true_iff in Hu. apply andb_true_iff in Hv. destruct Hu as [U1 U2], Hv as [V1 V2].
      apply N.eqb_eq in U1, U2, V1, V2. exists a, b. destruct (s_el a), (s_el b). simpl in *. subst. auto.
    - intros (a & b & -> & -> & -> & ->). reflexivity. }
  rewrite A. split.
  - intros (x' & E & [[H ->]|(_ & _ & C & _)]); [|discriminate].
    destruct (adj g u v) as [x|]; [|discriminate]. simpl in E. inversion E; subst. exists x. split; [reflexivity|]. split; [|reflexivity].
    destruct H as [H|H]; [left; exact H|right; apply Hh; exact H].
  - intros (x & E & H & ->). rewrite E. simpl. exists (x, None). split; [reflexivity|]. left. split; [|reflexivity].
    destruct H as [H|H]; [left; exact H|right; apply Hh; exact H].
Qed.

(** every atom of a store=True ITS built by C01's construction carries pairs *)
Lemma emb_S_pairs (g : itsS) n a : label (emb_S g) n = Some a -> exists p q, n_el a = Some (Pr p q).
Proof.
  unfold emb_S. rewrite label_gmap. destruct (label g n) as [x|]; [|discriminate]. intros [= <-]. simpl. eauto.
Qed.

(** * store=True vs store=False: the flattened store=True atom IS the store=False atom when the element is the same on both
    sides (true for every atom of a reaction) *)
Lemma flat_twin (a : inodeS) : fst (s_el a) = snd (s_el a) -> flat (sn_of_S a) = xn_of (twin a).
Proof.
  intros E. unfold flat, sn_of_S, xn_of, twin. simpl. rewrite <- E.
  destruct (N.eqb (fst (s_el a)) EL_H); reflexivity.
Qed.

Definition el_same (g : itsS) : Prop := forall n a, In (n, a) (gnodes g) -> fst (s_el a) = snd (s_el a).

Lemma flat_emb_S (g : itsS) : el_same g -> gmapn flat (emb_S g) = emb (gmap twin (fun e : iedge => e) g).
Proof.
  intros Hs. unfold gmapn, emb_S, emb, gmap. simpl. f_equal.
  - rewrite !map_map. apply map_ext_in. intros [n a] I. simpl. f_equal. apply flat_twin. exact (Hs n a I).
  - rewrite map_map. apply map_ext. intros [[u v] x]. reflexivity.
Qed.

(** the centre of the store=True ITS, flattened, is the centre of its store=False twin — for every option setting *)
Theorem rcS_twin K d m (g : itsS) : el_same g ->
  gmapn flat (get_rc_S K d m (emb_S g)) = get_rc_x K d m (emb (gmap twin (fun e : iedge => e) g)).
Proof. intros Hs. rewrite rcS_flat, (flat_emb_S g Hs). reflexivity. Qed.

(** the twin of ITSConstruction.construct(store=True) is ITSConstruction.construct(store=False), for every other option *)
Lemma twin_construct o G H : gmap twin (fun e : iedge => e) (its_construct_S o G H) = its_construct_o o G H.
Proof.
  unfold its_construct_S, its_construct_o, its_construct_gen, gmap. simpl. f_equal.
  - rewrite map_map. reflexivity.
  - rewrite map_app, !map_map. f_equal; apply map_ext; intros [[u v] x]; reflexivity.
Qed.

(** end to end: when every atom has the same element on both sides, get_rc of construct(G, H, store=True), flattened, is
    get_rc of construct(G, H, store=False) — same atoms, same bonds with the same attributes, reactant-side labels *)
Theorem rcS_construct K d m o G H : el_same (its_construct_S o G H) ->
  gmapn flat (get_rc_S K d m (emb_S (its_construct_S o G H))) = get_rc_x K d m (emb (its_construct_o o G H)).
Proof. intros Hs. rewrite (rcS_twin K d m _ Hs), twin_construct. reflexivity. Qed.

(** witnesses: an unchanged ("H","H")-("H","H") bond IS in the centre of a store=True ITS, as in the store=False twin
    (with the _is_hh_pair that knew only the scalar "H", /repo before 01341f7, the first centre is empty); a ("H","C") pair is not a hydrogen *)
Definition hhS_node (n : Z) : inodeS := INS n (2%N, 2%N) (false, false) (0, 0) (0, 0) ([], []) (NA 2%N false 0 0 []) (NA 2%N false 0 0 []).
Definition hhS : itsS := LG [(1%N, hhS_node 1); (2%N, hhS_node 2)] [(1%N, 2%N, IE 2 2 0)].
Definition hcS_node (n : Z) : inodeS := INS n (2%N, 70%N) (false, false) (0, 0) (0, 0) ([], []) (NA 2%N false 0 0 []) (NA 70%N false 0 0 []).
Definition hcS : itsS := LG [(1%N, hhS_node 1); (2%N, hcS_node 2)] [(1%N, 2%N, IE 2 2 0)].
Theorem rcS_hh_forced :
  node_ids (get_rc_S K_default false false (emb_S hhS)) = [1%N; 2%N] /\
  adj (get_rc_S K_default false false (emb_S hhS)) 1%N 2%N = Some (IE 2 2 0, Some false) /\
  node_ids (get_rc (gmap twin (fun e : iedge => e) hhS)) = [1%N; 2%N] /\
  gnodes (get_rc_S K_default false false (emb_S hcS)) = [].
Proof. vm_compute. repeat split; reflexivity. Qed.

(** non-vacuity: a store=True ITS with a changed bond and a charge change; labels of the centre are the pairs *)
Definition exS : itsS :=
  LG [(1%N, INS 1 (70%N, 70%N) (false, false) (1, 0) (0, -1) ([82%N], [82%N]) (NA 70%N false 1 0 [82%N]) (NA 70%N false 0 (-1) [82%N]));
      (2%N, INS 2 (82%N, 82%N) (false, false) (0, 1) (0, 0) ([70%N], [70%N]) (NA 82%N false 0 0 [70%N]) (NA 82%N false 1 0 [70%N]))]
     [(1%N, 2%N, IE 4 2 2)].
Example C02_store_nonvacuous :
  wf (emb_S exS) /\
  option_map n_ch (label (get_rc_S K_default false false (emb_S exS)) 1%N) = Some (Some (Pr 0 (-1))) /\
  option_map n_el (label (get_rc_S K_default false false (emb_S exS)) 1%N) = Some (Some (Pr 70%N 70%N)) /\
  adj (get_rc_S K_default false false (emb_S exS)) 1%N 2%N = Some (IE 4 2 2, Some false).
Proof.
  split; [apply wfb_sound; reflexivity|vm_compute; repeat split].
Qed.

Example C02_store_twin_nonvacuous :
  el_same exS /\ el_same hhS /\ ~ el_same hcS /\
  gnodes (gmapn flat (get_rc_S K_default true true (emb_S exS))) <> [].
Proof.
  split; [|split; [|split]].
  - intros n a [E|[E|[]]]; inversion E; reflexivity.
  - intros n a [E|[E|[]]]; inversion E; reflexivity.
  - intros Hs. specialize (Hs 2%N (hcS_node 2) (or_intror (or_introl eq_refl))). discriminate.
  - vm_compute. discriminate.
Qed.
