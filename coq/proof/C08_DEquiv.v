(** C08 — directed inputs: equivariance of the exact back-end's search on a DiGraph.  If [h] is, on the covered
    attributes, the digraph [g] renumbered by an injective [pi] (any insertion order of nodes and arcs, any atom maps),
    every ingredient of the search is related ([dsigN_rel], [dinit_rel], [dnlabel_rel]), the leaf enumerations
    correspond up to order and the minimal label is the same ([dnauty_label_rel]).  Mirrors C08_Equiv.v; the
    successor-only signature of nauty._node_signature is equivariant although it does not see the arcs into a node. *)
From Coq Require Import String List NArith ZArith Bool Arith Lia Permutation.
From SK Require Import lib.LGraph lib.IRSortKeys lib.IRCore lib.IRSearch lib.StrJoin.
From SK Require Import model.C08_Model model.C08_Digraph proof.C08_Spec proof.C08_DSpec proof.C08_Sort proof.C08_Faithful proof.C08_Cov
                       proof.C08_SigFun proof.C08_Render proof.C08_IR proof.C08_Nauty proof.C08_Equiv proof.C08_DSer proof.C08_DNauty.
From SK Require lib.IRInst.
Import ListNotations.

Lemma ncov_attr_perm g h v : NoDup (node_ids g) -> Permutation (cov_nodes g) (cov_nodes h) -> ncov (attr_of g v) = ncov (attr_of h v).
Proof.
  intros Hnd H. rewrite !ncov_attr_cov. rewrite (assoc_perm v (cov_nodes g) (cov_nodes h)); auto.
  rewrite <- node_ids_cov. exact Hnd.
Qed.

(* the arc u -> v through the covered arc list *)
Definition dckey (u v : N) (c : N * N * ecv) : bool := N.eqb (fst (fst c)) u && N.eqb (snd (fst c)) v.
Definition dclook (u v : N) (l : list (N * N * ecv)) : option ecv := option_map snd (find (dckey u v) l).
Lemma arc_cov (g : graph) u v : option_map ecov (arc g u v) = dclook u v (dcov_edges g).
Proof.
  unfold arc, dclook, dcov_edges. induction (gedges g) as [|[[a b] x] l IH]; [reflexivity|].
  cbn [map find find_arc]. unfold dckey at 1. cbn [dcove fst snd].
  destruct (N.eqb a u && N.eqb b v); [reflexivity|exact IH].
Qed.
Lemma dclook_perm u v l l' : NoDup (map fst l) -> Permutation l l' -> dclook u v l = dclook u v l'.
Proof.
  intros Hnd Hp. unfold dclook. f_equal. apply (find_perm (dckey u v) fst); auto.
  intros [[a b] x] [[a' b'] y]. unfold dckey. cbn [fst snd]. rewrite !andb_true_iff, !N.eqb_eq. intros [-> ->] [-> ->]. reflexivity.
Qed.
Lemma arc_dgeq_cov g h u v : dsimple g -> dgeq_cov g h -> option_map ecov (arc g u v) = option_map ecov (arc h u v).
Proof. intros [_ Hs] [_ H]. rewrite !arc_cov. apply dclook_perm; auto. Qed.

(* arcs leaving a node through the covered arc list *)
Definition dout1 (v : N) (e : N * N * eattr) : list (N * eattr) := let '(a, b, x) := e in if N.eqb a v then [(b, x)] else [].
Definition doutc (v : N) (c : N * N * ecv) : list (N * ecv) := let '(a, b, x) := c in if N.eqb a v then [(b, x)] else [].
Lemma dout_flat g v : dout g v = flat_map (dout1 v) (gedges g).
Proof. unfold dout. apply flat_map_ext. intros [[a b] x]. reflexivity. Qed.
Lemma dout_dcov g v : map ce (dout g v) = flat_map (doutc v) (dcov_edges g).
Proof.
  rewrite dout_flat. unfold dcov_edges. rewrite flat_map_map_l, map_flat_map_l.
  apply flat_map_ext. intros [[a b] x]. unfold dout1, doutc, dcove. destruct (N.eqb a v); reflexivity.
Qed.

Section DRel.
Variable pi : N -> N.
Hypothesis pi_inj : forall x y, pi x = pi y -> x = y.

Lemma arc_relabel (g : graph) u v : arc (relabel pi g) (pi u) (pi v) = arc g u v.
Proof.
  unfold arc, relabel. cbn [gedges]. induction (gedges g) as [|[[a b] x] l IH]; simpl; auto.
  rewrite !(eqb_pi pi pi_inj), IH. reflexivity.
Qed.
Lemma dout_relabel (g : graph) v : dout (relabel pi g) (pi v) = map (fun p => (pi (fst p), snd p)) (dout g v).
Proof.
  rewrite !dout_flat. unfold relabel. cbn [gedges]. induction (gedges g) as [|[[a b] x] l IH]; simpl; auto.
  rewrite map_app, <- IH. f_equal. rewrite (eqb_pi pi pi_inj). destruct (N.eqb a v); reflexivity.
Qed.

Variables g h : graph.
Hypothesis Hg : dwf g.
Hypothesis Hq : dgeq_cov (relabel pi g) h.

Lemma dpi_inj_on : C08_Spec.inj_on pi (node_ids g).
Proof. intros x y _ _. apply pi_inj. Qed.
Lemma dsimple_pig : dsimple (relabel pi g).
Proof. apply dsimple_relabel; [exact Hg|apply dpi_inj_on]. Qed.

Lemma dattr_rel v : ncov (attr_of h (pi v)) = ncov (attr_of g v).
Proof. rewrite <- (ncov_attr_perm _ _ _ (proj1 dsimple_pig) (proj1 Hq)). rewrite (attr_relabel pi pi_inj). reflexivity. Qed.
Lemma arc_rel u v : option_map ecov (arc h (pi u) (pi v)) = option_map ecov (arc g u v).
Proof. rewrite <- (arc_dgeq_cov _ _ _ _ dsimple_pig Hq). rewrite arc_relabel. reflexivity. Qed.
Lemma dinc_rel v : Permutation (map ce (inc h (pi v))) (map (fun p => (pi (fst p), snd p)) (map ce (inc g v))).
Proof.
  eapply perm_trans; [rewrite inc_dcov; apply Permutation_flat_map; apply Permutation_sym; exact (proj2 Hq)|].
  rewrite <- inc_dcov. rewrite (inc_relabel pi pi_inj), !map_map. apply Permutation_refl.
Qed.
Lemma dout_rel v : Permutation (map ce (dout h (pi v))) (map (fun p => (pi (fst p), snd p)) (map ce (dout g v))).
Proof.
  eapply perm_trans; [rewrite dout_dcov; apply Permutation_flat_map; apply Permutation_sym; exact (proj2 Hq)|].
  rewrite <- dout_dcov. rewrite dout_relabel, !map_map. apply Permutation_refl.
Qed.

Lemma dacode_rel v : acode h (pi v) = acode g v.
Proof. rewrite !acode_cov, dattr_rel. reflexivity. Qed.
Lemma dnode_str_rel v : node_str h (pi v) = node_str g v.
Proof. rewrite !node_str_cov, dattr_rel. reflexivity. Qed.
Lemma dedge_bit_cov (k : graph) ab : dedge_bit k ab = EB (option_map ecov (arc k (fst ab) (snd ab))).
Proof.
  unfold dedge_bit, EB. destruct (arc k (fst ab) (snd ab)) as [[o s t]|]; [|reflexivity].
  cbn [option_map ecov eo es et]. rewrite ord_str_cov. cbn [eo et]. change (lit "1:"%string) with [49%N; 58%N]. change (lit ":"%string) with [58%N].
  cbn [app]. rewrite <- ?app_assoc. reflexivity.
Qed.
Lemma dedge_bit_rel ab : dedge_bit h (pi (fst ab), pi (snd ab)) = dedge_bit g ab.
Proof. rewrite !dedge_bit_cov. cbn [fst snd]. rewrite arc_rel. reflexivity. Qed.

Lemma ddegree_rel v : degree h (pi v) = degree g v.
Proof.
  unfold degree. f_equal. pose proof (Permutation_length (dinc_rel v)) as E. rewrite !map_length in E. exact E.
Qed.
Lemma dsucc_rel v : Permutation (map fst (dout h (pi v))) (map pi (map fst (dout g v))).
Proof.
  pose proof (Permutation_map fst (dout_rel v)) as H. rewrite !map_map in H. cbn [fst ce] in H.
  rewrite map_map. exact H.
Qed.
Lemma decodes_rel v : Permutation (map (fun p => ecode (snd p)) (dout h (pi v))) (map (fun p => ecode (snd p)) (dout g v)).
Proof.
  pose proof (Permutation_map (fun p : N * ecv => EC (snd p)) (dout_rel v)) as H. rewrite !map_map in H. cbn [snd ce] in H.
  rewrite (map_ext (fun p => ecode (snd p)) (fun p => EC (ecov (snd p)))) by (intros; apply ecode_cov).
  exact H.
Qed.

Theorem dsigN_rel P P' v : partR pi P P' -> dsigN h P' (pi v) = dsigN g P v.
Proof.
  intros HP. unfold dsigN. rewrite dacode_rel, ddegree_rel. f_equal. f_equal. f_equal.
  - induction HP as [|c c' P P' Hc HP IH]; simpl; auto. f_equal; auto.
    rewrite (cnt_perm c' _ _ (dsucc_rel v)). apply IRInst.cnt_rel; auto.
  - f_equal. apply sort_by_perm_eq; [apply decodes_rel|]. intros x y _ _ E. exact E.
Qed.

Lemma dids_rel : Permutation (map pi (node_ids g)) (node_ids h).
Proof. rewrite <- node_ids_relabel. apply dgeq_cov_ids. exact Hq. Qed.
Lemma dnnodes_rel : length (gnodes h) = length (gnodes g).
Proof.
  pose proof (Permutation_length (proj1 Hq)) as E. unfold cov_nodes, relabel in E. cbn [gnodes] in E.
  rewrite !map_length in E. symmetry. exact E.
Qed.

Theorem dinit_rel : partR pi (init_partition g) (init_partition h).
Proof.
  unfold init_partition. pose proof dnnodes_rel as Hl.
  destruct (gnodes g) as [|p l] eqn:Eg, (gnodes h) as [|p' l'] eqn:Eh; try discriminate; [constructor|].
  apply init_cells_rel; [apply dacode_rel|apply dids_rel].
Qed.

Lemma filter_map_pi (x : N) (p : list N) :
  filter (fun y => negb (N.eqb y (pi x))) (map pi p) = map pi (filter (fun y => negb (N.eqb y x)) p).
Proof.
  induction p as [|y p IH]; simpl; auto. rewrite (eqb_pi pi pi_inj). destruct (N.eqb y x); simpl; rewrite IH; reflexivity.
Qed.
Lemma dpairs_map (p : list N) : dpairs (map pi p) = map (fun ab => (pi (fst ab), pi (snd ab))) (dpairs p).
Proof.
  unfold dpairs. rewrite flat_map_map_l, map_flat_map_l.
  apply flat_map_ext. intros x. rewrite filter_map_pi, !map_map. reflexivity.
Qed.
Theorem dnlabel_rel p : dnlabel h (map pi p) = dnlabel g p.
Proof.
  unfold dnlabel, node_seg. rewrite dpairs_map, !map_map.
  rewrite (map_ext (fun x => node_str h (pi x)) (node_str g)) by apply dnode_str_rel.
  rewrite (map_ext (fun x => dedge_bit h (pi (fst x), pi (snd x))) (dedge_bit g)) by apply dedge_bit_rel.
  reflexivity.
Qed.

Lemma dfuel_rel : rfuel h = rfuel g /\ sfuel h = sfuel g.
Proof. unfold rfuel, sfuel. rewrite dnnodes_rel. auto. Qed.

Theorem dleaves_rel : Permutation (map (map pi) (leaves2 _ lexleb (dsigN g) (rfuel g) (children g) (sfuel g) (init_partition g) []))
                                  (leaves2 _ lexleb (dsigN h) (rfuel h) (children h) (sfuel h) (init_partition h) []).
Proof.
  destruct dfuel_rel as [-> ->].
  apply (leaves2_rel _ lexleb IRInst.lexleb_total IRInst.lexleb_trans IRInst.lexleb_antisym pi pi_inj (dsigN g) (dsigN h)
           dsigN_rel (children g) (children h) (children_perm g) (children_perm h) (rfuel g) (sfuel g)
           (init_partition g) (init_partition h) [] dinit_rel).
Qed.

Lemma dnauty_label_fold (k : graph) :
  dnauty_label k = fold_left (minl strleb) (map (dnlabel k) (leaves2 _ lexleb (dsigN k) (rfuel k) (children k) (sfuel k) (init_partition k) [])) None.
Proof.
  unfold dnauty_label, dnauty_acc. rewrite dnsearch_is_fold.
  exact (best_label_fold strleb (dnlabel k) _ (None, [])).
Qed.

Theorem dnauty_label_rel : dnauty_label h = dnauty_label g.
Proof.
  rewrite !dnauty_label_fold. apply (min_label_rel pi); [apply dleaves_rel|apply dnlabel_rel].
Qed.
End DRel.

Print Assumptions dnauty_label_rel.
