(** C08 — SynRule and ONE bijection.  "Isomorphic content" of a rule is a single map carrying the
    reaction-centre graph, the left and the right fragment simultaneously.  Comparing the three signatures (what SynRule.__eq__
    did until repair 4537ada, model [synrule_eqb]) gives three INDEPENDENT isomorphisms ([C08_Value.synrule_nauty]: the
    componentwise theorems):
      joint => componentwise => signatures equal            (proved here: [synrule_joint_complete])
      signatures equal => joint                             REFUTED ([synrule_joint_refuted]): two double bonds closing to a
        four-ring, product-side charge on the formerly doubly bonded pair {1,2} resp. the formerly unbonded pair {1,4}: the three
        signatures agree (the right fragment alone has the reflection that exchanges the pairs), no single map works.
    The repaired implementation signs the reaction-centre graph with BOTH sides of typesGH in the covered node attributes; that
    graph (node attributes are pairs) is outside this model, the repaired behaviour is checked by the oracle (case kind itsrule). *)
From Coq Require Import String List NArith ZArith Bool Arith Lia Permutation.
From SK Require Import lib.LGraph lib.StrJoin.
From SK Require Import model.C08_Model proof.C08_Spec proof.C08_Sort proof.C08_Faithful proof.C08_Cov proof.C08_SigFun
                       proof.C08_Render proof.C08_Nauty proof.C08_Sound proof.C08_Invariant proof.C08_Value.
Import ListNotations.

(** one map for the three graphs of a rule (rc, left, right) *)
Definition rule_joint_iso (a b : graph * graph * graph) : Prop :=
  exists f, C08_Spec.inj_on f (node_ids (fst (fst a))) /\ C08_Spec.inj_on f (node_ids (snd (fst a))) /\ C08_Spec.inj_on f (node_ids (snd a)) /\
            geq_cov (relabel f (snd (fst a))) (snd (fst b)) /\ geq_cov (relabel f (snd a)) (snd b) /\
            geq_cov (relabel f (fst (fst a))) (fst (fst b)).

Theorem synrule_joint_complete a b : rule_ok a -> rule_ok b -> rule_joint_iso a b -> synrule_eqb ser_nauty a b = true.
Proof.
  intros Ha Hb (f & I1 & I2 & I3 & Q2 & Q3 & Q1). apply (synrule_eqb_nauty a b Ha Hb).
  repeat split; exists f; split; auto.
Qed.

(* ---------------- the witness ---------------- *)
Definition wC (q : Z) : nattr := NA [67%N] false q 0 None.
Definition w_rc : graph :=
  LG [(1%N, wC 0); (2%N, wC 0); (3%N, wC 0); (4%N, wC 0)]
     [(1%N, 2%N, EA3 4 (Some 2%Z) (Some 2%Z)); (3%N, 4%N, EA3 4 (Some 2%Z) (Some 2%Z));
      (1%N, 4%N, EA3 0 (Some (-2)%Z) (Some 2%Z)); (3%N, 2%N, EA3 0 (Some (-2)%Z) (Some 2%Z))].
Definition w_l : graph :=
  LG [(1%N, wC 0); (2%N, wC 0); (3%N, wC 0); (4%N, wC 0)] [(1%N, 2%N, EA 4 None); (3%N, 4%N, EA 4 None)].
Definition w_r (a b : N) : graph :=
  LG (map (fun n => (n, wC (if orb (N.eqb n a) (N.eqb n b) then 1 else 0)%Z)) [1%N; 2%N; 3%N; 4%N])
     [(1%N, 2%N, EA 2 None); (3%N, 4%N, EA 2 None); (1%N, 4%N, EA 2 None); (3%N, 2%N, EA 2 None)].
Definition w_A : graph * graph * graph := (w_rc, w_l, w_r 1 2).
Definition w_B : graph * graph * graph := (w_rc, w_l, w_r 1 4).

Lemma w_ok : rule_ok w_A /\ rule_ok w_B.
Proof.
  assert (K : forall g, wfb g = true -> els_okb g = true -> wf g /\ els_ok g).
  { intros g H1 H2. split; [apply wfb_sound|apply els_okb_sound]; assumption. }
  split; (split; [|split]); apply K; reflexivity.
Qed.

(* the right fragments differ by the reflection 2 <-> 4; the other two components coincide *)
Lemma w_r_sig : str_eqb (ser_nauty (w_r 1 2)) (ser_nauty (w_r 1 4)) = true.
Proof. vm_compute. reflexivity. Qed.
Lemma w_eqb : synrule_eqb ser_nauty w_A w_B = true.
Proof. unfold synrule_eqb, w_A, w_B. cbn [fst snd]. rewrite w_r_sig, !str_eqb_refl. reflexivity. Qed.

Theorem synrule_joint_refuted : rule_ok w_A /\ rule_ok w_B /\ synrule_eqb ser_nauty w_A w_B = true /\ ~ rule_joint_iso w_A w_B.
Proof.
  destruct w_ok as [Ha Hb]. split; [exact Ha|]. split; [exact Hb|]. split; [exact w_eqb|].
  intros (f & _ & _ & _ & _ & [Q3 _] & [_ Q1]). unfold w_A, w_B in *. cbn [fst snd] in *.
  rewrite cov_nodes_relabel in Q3. rewrite cov_edges_relabel in Q1.
  (* on the right fragments the charged atoms 1, 2 go to the charged atoms 1, 4 ... *)
  assert (C : forall x, In x [1%N; 2%N] -> f x = 1%N \/ f x = 4%N).
  { intros x Ix.
    assert (I : In (rn f (x, ncov (wC 1))) (cov_nodes (w_r 1 4))).
    { apply (Permutation_in _ Q3). apply in_map. destruct Ix as [<-|[<-|[]]]; simpl; auto. }
    simpl in I. destruct I as [I|[I|[I|[I|[]]]]]; inversion I; auto. }
  (* ... but in the reaction centre the bond 1=2 goes to a bond that was double, and {1,4} was not bonded *)
  assert (I : In (re f (1%N, 2%N, ecov (EA3 4 (Some 2%Z) (Some 2%Z)))) (cov_edges w_rc)).
  { apply (Permutation_in _ Q1). apply in_map. simpl. auto. }
  unfold re in I.
  destruct (C 1%N (or_introl eq_refl)) as [E1|E1], (C 2%N (or_intror (or_introl eq_refl))) as [E2|E2];
    rewrite E1, E2 in I; simpl in I; destruct I as [I|[I|[I|[I|[]]]]]; discriminate.
Qed.

(* the attribute-sort back-end happens to tell the two rules apart (tie-break by id), the exact one cannot *)
Example joint_ex : synrule_eqb ser_generic w_A w_B = false /\ synrule_eqb ser_nauty w_A w_A = true /\ rule_joint_iso w_A w_A.
Proof.
  split; [vm_compute; reflexivity|]. split; [apply synrule_eqb_refl|].
  destruct w_ok as [((Wrc & _) & (Wl & _) & (Wr & _)) _]. unfold w_A in *. cbn [fst snd] in *.
  exists (fun x => x). repeat split; try (intros x y _ _ E; exact E);
    rewrite (relabel_id_on (fun x => x)); auto; apply geq_cov_refl.
Qed.

(* flat statements for the props file *)
Theorem synrule_joint_complete_flat (rc l r rc' l' r' : graph) :
  wf rc -> wf l -> wf r -> wf rc' -> wf l' -> wf r' ->
  els_ok rc -> els_ok l -> els_ok r -> els_ok rc' -> els_ok l' -> els_ok r' ->
  (exists f, C08_Spec.inj_on f (node_ids rc) /\ C08_Spec.inj_on f (node_ids l) /\ C08_Spec.inj_on f (node_ids r) /\
             geq_cov (relabel f l) l' /\ geq_cov (relabel f r) r' /\ geq_cov (relabel f rc) rc') ->
  synrule_eqb ser_nauty (rc, l, r) (rc', l', r') = true.
Proof.
  intros. apply (synrule_joint_complete (rc, l, r) (rc', l', r')); unfold rule_ok, rule_joint_iso; cbn [fst snd]; auto.
Qed.
Theorem synrule_joint_refuted_flat : exists rc l r rc' l' r' : graph,
  (wf rc /\ wf l /\ wf r /\ wf rc' /\ wf l' /\ wf r') /\
  (els_ok rc /\ els_ok l /\ els_ok r /\ els_ok rc' /\ els_ok l' /\ els_ok r') /\
  synrule_eqb ser_nauty (rc, l, r) (rc', l', r') = true /\
  ~ (exists f, C08_Spec.inj_on f (node_ids rc) /\ C08_Spec.inj_on f (node_ids l) /\ C08_Spec.inj_on f (node_ids r) /\
               geq_cov (relabel f l) l' /\ geq_cov (relabel f r) r' /\ geq_cov (relabel f rc) rc').
Proof.
  exists w_rc, w_l, (w_r 1 2), w_rc, w_l, (w_r 1 4).
  destruct synrule_joint_refuted as (((A1 & A2) & (A3 & A4) & (A5 & A6)) & ((B1 & B2) & (B3 & B4) & (B5 & B6)) & E & N).
  unfold w_A, w_B, rule_joint_iso in *. cbn [fst snd] in *.
  split; [exact (conj A1 (conj A3 (conj A5 (conj B1 (conj B3 B5)))))|]. split; [exact (conj A2 (conj A4 (conj A6 (conj B2 (conj B4 B6)))))|].
  split; [exact E|exact N].
Qed.

Print Assumptions synrule_joint_complete.
Print Assumptions synrule_joint_refuted.
