(** C18 — complete half of the canonicaliser's orbit computation: every surviving slot of _orbits_from_perms contains the
    image of its home element under every processed leaf, so (the leaves being the images of the best permutation under
    ALL structure-preserving self-maps) every reported set contains the whole orbit of its home element. *)
From Coq Require Import List NArith ZArith Bool Arith Lia Permutation.
From SK Require Import lib.IRCore lib.IRSearch model.C18_Model proof.C18_Spec proof.C18_Graph proof.C18_OrbSound.
Import ListNotations.

Lemma omerge_shape s i j : i <> j ->
  exists a b, ((a = i /\ b = j) \/ (a = j /\ b = i)) /\
    length (nth b (snd s) []) <= length (nth a (snd s) []) /\
    omerge s i j = (fold_left (fun m v0 => (v0, a) :: m) (nth b (snd s) []) (fst s),
                    set_nth b [] (set_nth a (union_set (nth a (snd s) []) (nth b (snd s) [])) (snd s))).
Proof.
  intros Hne. unfold omerge. destruct (Nat.eqb_spec i j) as [E|_]; [contradiction|].
  destruct (Nat.ltb_spec (length (nth i (snd s) [])) (length (nth j (snd s) []))).
  - exists j, i. split; [right; auto|]. split; [lia|reflexivity].
  - exists i, j. split; [left; auto|]. split; [lia|reflexivity].
Qed.

Section Complete.
Variable first : list N.
Variable R : N -> N -> Prop.

(** every non-empty slot contains the values seen at its own position *)
Definition K (seen : list (nat * N)) (s : ostate) : Prop :=
  forall a w, In (a, w) seen -> a < length first -> nth a (snd s) [] = [] \/ In w (nth a (snd s) []).

Lemma omerge_K seen s i v : Inv first R s -> K seen s -> i < length first -> In v first ->
  K (seen ++ [(i, v)]) (omerge s i (omap_get (fst s) v)).
Proof.
  intros (Hl & Hb & Hc & Hd & He) HK Hi Hv. destruct (Hc v Hv) as [Hj Hvj]. unfold len in *.
  set (j := omap_get (fst s) v) in *.
  destruct (Nat.eq_dec i j) as [E|Hne].
  - unfold omerge. rewrite (proj2 (Nat.eqb_eq i j) E). intros a w Hin Ha. apply in_app_or in Hin.
    destruct Hin as [Hin|[Ep|[]]]; [apply HK; auto|]. inversion Ep as [[E1 E2]]. right. rewrite <- E1, E, <- E2. exact Hvj.
  - destruct (omerge_shape s i j Hne) as (a & b & Hab & Hsz & ->). simpl.
    assert (Ha : a < length (snd s)) by (destruct Hab as [[-> ->]|[-> ->]]; lia).
    assert (Hb' : b < length (snd s)) by (destruct Hab as [[-> ->]|[-> ->]]; lia).
    assert (Hneq : a <> b) by (destruct Hab as [[-> ->]|[-> ->]]; auto).
    unfold K. intros k w Hin Hk. cbn [snd]. rewrite (nth_merged _ a b _ k Ha Hb').
    destruct (Nat.eqb_spec k b) as [->|Hkb]; auto.
    destruct (Nat.eqb_spec k a) as [->|Hka].
    + apply in_app_or in Hin. destruct Hin as [Hin|[Ep|[]]].
      * destruct (HK a w Hin Hk) as [E|I]; [|right; apply union_set_in; auto].
        left. rewrite E in *. simpl in Hsz. destruct (nth b (snd s) []); [reflexivity|simpl in Hsz; lia].
      * inversion Ep; subst. right. apply union_set_in. right.
        destruct Hab as [[_ ->]|[Ea _]]; [exact Hvj|congruence].
    + apply in_app_or in Hin. destruct Hin as [Hin|[Ep|[]]]; [apply HK; auto|].
      inversion Ep; subst. destruct Hab as [[-> _]|[_ ->]]; congruence.
Qed.

Definition stepp (s : ostate) (iv : nat * N) : ostate := omerge s (fst iv) (omap_get (fst s) (snd iv)).

Lemma fold_K (R_sym : forall x y, R x y -> R y x) (R_trans : forall x y z, R x y -> R y z -> R x z)
  (R_refl : forall x, In x first -> R x x) L : forall seen s,
  (forall iv, In iv L -> fst iv < length first /\ In (snd iv) first /\ R (nth (fst iv) first 0%N) (snd iv)) ->
  Inv first R s -> K seen s ->
  Inv first R (fold_left stepp L s) /\ K (seen ++ L) (fold_left stepp L s).
Proof.
  induction L as [|[i v] L IH]; intros seen s HL Hs HK; simpl; [rewrite app_nil_r; auto|].
  destruct (HL (i, v) (or_introl eq_refl)) as (Hi & Hv & HR). simpl in *.
  replace (seen ++ (i, v) :: L) with ((seen ++ [(i, v)]) ++ L) by (rewrite <- app_assoc; reflexivity).
  apply IH; [intros; apply HL; right; auto| |].
  - unfold stepp. simpl. apply omerge_inv; auto.
  - unfold stepp. simpl. apply omerge_K; auto.
Qed.
End Complete.

Theorem orbits_from_perms_complete first rest (R : N -> N -> Prop) :
  (forall x y, R x y -> R y x) -> (forall x y z, R x y -> R y z -> R x z) -> (forall x, In x first -> R x x) ->
  (forall q, In q rest -> length q = length first /\
     forall i, i < length first -> In (nth i q 0%N) first /\ R (nth i first 0%N) (nth i q 0%N)) ->
  forall c, In c (orbits_from_perms (first :: rest)) ->
    exists a, a < length first /\ In (nth a first 0%N) c /\ forall q, In q rest -> In (nth a q 0%N) c.
Proof.
  intros Rs Rt Rr HQ c Hc. unfold orbits_from_perms in Hc.
  assert (E : fold_left (fun s p => fold_left (fun s iv => omerge s (fst iv) (omap_get (fst s) (snd iv))) (indexed p) s) rest (oinit first)
              = fold_left (stepp) (flat_map indexed rest) (oinit first)).
  { symmetry. apply (fold_left_flat_map stepp indexed rest). }
  rewrite E in Hc. clear E.
  destruct (fold_K first R Rs Rt Rr (flat_map indexed rest) [] (oinit first)) as [Hinv HK].
  - exact (leaf_pairs_ok first rest R HQ).
  - apply Inv_init; auto.
  - intros a w [].
  - simpl in HK. apply filter_In in Hc. destruct Hc as [Hc Hne].
    destruct (In_nth _ _ [] Hc) as (a & Ha & Ea).
    destruct Hinv as (Hl & Hb & _). unfold len in *. rewrite Hl in Ha.
    exists a. split; auto. split.
    + destruct (Hb a Ha) as [E0|I]; [rewrite Ea in E0; rewrite E0 in Hne; simpl in Hne; discriminate|rewrite Ea in I; auto].
    + intros q Hq. destruct (HQ q Hq) as [Hlq _].
      assert (Hin : In (a, nth a q 0%N) (flat_map indexed rest)).
      { apply in_flat_map. exists q. split; auto. unfold indexed.
        assert (G : forall (l : list N) b k, k < length l -> In (b + k, nth k l 0%N) (combine (seq b (length l)) l)).
        { induction l as [|x l IH]; intros b k Hk; simpl in *; [lia|]. destruct k; [left; f_equal; lia|].
          right. replace (b + S k) with (S b + k) by lia. apply IH. lia. }
        apply (G q 0 a). lia. }
      destruct (HK a (nth a q 0%N) Hin Ha) as [E0|I]; [rewrite Ea in E0; rewrite E0 in Hne; simpl in Hne; discriminate|rewrite Ea in I; auto].
Qed.
