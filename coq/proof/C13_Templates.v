(** C13 -- the STATE carried across calls: the template list returned by BatchCluster.fit.
    Whatever path fit takes from no templates (one-shot GraphCluster + stratified sample of one representative per
    class, or a run of lib_check over the batches) the returned templates are coherent ("same class" <-> "isomorphic
    representatives"), and every processed item is represented: some template is isomorphic to it and carries its class.
    Hence a later lib_check of a NEW item against these templates joins exactly the class of the isomorphic items
    processed before, or opens a fresh class when there is none ([fit_then_lib_check]). *)
From Coq Require Import List ZArith Lia.
From SK Require Import lib.LGraph lib.C13_Partition model.C13_Model proof.C13_Proof.
Import ListNotations.

Lemma in_combine_nth {A B} (l : list A) (l' : list B) x k :
  In (x, k) (combine l l') -> exists i, nth_error l i = Some x /\ nth_error l' i = Some k.
Proof.
  revert l'. induction l as [|a r IH]; intros l' H; [destruct H|].
  destruct l' as [|b r']; [destruct H|]. simpl in H. destruct H as [H|H].
  - inversion H; subst. exists 0. auto.
  - destruct (IH _ H) as (i & H1 & H2). exists (S i). auto.
Qed.

Lemma nth_combine_in {A B} (l : list A) (l' : list B) i x k :
  nth_error l i = Some x -> nth_error l' i = Some k -> In (x, k) (combine l l').
Proof.
  revert l l'. induction i as [|i IH]; intros [|a r] [|b r'] H1 H2; simpl in *; try discriminate.
  - inversion H1; inversion H2; subst. now left.
  - right. now apply IH.
Qed.

Lemma first_keys_complete cs : forall seen k, In k cs -> In k seen \/ In k (first_keys seen cs).
Proof.
  induction cs as [|c r IH]; intros seen k H; [destruct H|]. simpl.
  destruct (existsb (Z.eqb c) seen) eqn:Es.
  - destruct H as [<-|H]; [|now apply IH].
    left. apply existsb_exists in Es. destruct Es as (y & Hy & E). apply Z.eqb_eq in E. now subst.
  - destruct H as [<-|H]; [right; now left|].
    destruct (IH (c :: seen) k H) as [[<-|Hs]|Hf]; [right; now left|now left|right; now right].
Qed.

Lemma Forall2_in_l {A B} (P : A -> B -> Prop) l l' a : Forall2 P l l' -> In a l -> exists b, In (a, b) (combine l l') /\ P a b.
Proof.
  induction 1 as [|x y l l' Hxy HF IH]; intros H; [destruct H|]. destruct H as [<-|H].
  - exists y. split; [now left|exact Hxy].
  - destruct (IH H) as (b & Hb & Pb). exists b. split; [now right|exact Pb].
Qed.

(** the sampler's choices are in range (random.sample always is; the model takes them as an input) *)
Definition picks_valid (data : list item) (cs : list Z) (picks : list nat) : Prop :=
  Forall2 (fun k p => p < length (members data cs k)) (first_keys [] cs) picks.

Lemma strat_sample_in data cs picks x k :
  In (x, k) (strat_sample data cs picks) -> exists i, nth_error data i = Some x /\ nth_error cs i = Some k.
Proof.
  unfold strat_sample. intros H. apply in_flat_map in H. destruct H as ([k0 p] & _ & Hin). simpl in Hin.
  destruct (nth_error (members data cs k0) p) as [x0|] eqn:E; [|destruct Hin].
  destruct Hin as [Hin|[]]. inversion Hin; subst x0 k0.
  apply nth_error_In in E. unfold members in E. apply in_map_iff in E. destruct E as ([x' c] & Ex & Hf).
  simpl in Ex. subst x'. apply filter_In in Hf. destruct Hf as (Hc & Ek). simpl in Ek. apply Z.eqb_eq in Ek. subst c.
  now apply in_combine_nth.
Qed.

Lemma strat_sample_covers data cs picks i x k : picks_valid data cs picks ->
  nth_error data i = Some x -> nth_error cs i = Some k ->
  exists x0, In (x0, k) (strat_sample data cs picks).
Proof.
  intros Hp Hx Hk.
  assert (Ik : In k (first_keys [] cs)).
  { destruct (first_keys_complete cs [] k (nth_error_In _ _ Hk)) as [[]|H]. exact H. }
  destruct (Forall2_in_l _ _ _ k Hp Ik) as (p & Hkp & Hlt).
  destruct (nth_error (members data cs k) p) as [x0|] eqn:E; [|apply nth_error_None in E; lia].
  exists x0. unfold strat_sample. apply in_flat_map. exists (k, p). split; [exact Hkp|]. simpl. rewrite E. now left.
Qed.

Section Templates.
Variable iso : item -> item -> bool.
Variable mode : attr_mode.
Variable D : item -> Prop.
Hypothesis iso_refl : forall x, D x -> iso x x = true.
Hypothesis iso_sym : forall x y, D x -> D y -> iso x y = true -> iso y x = true.
Hypothesis iso_trans : forall x y z, D x -> D y -> D z -> iso x y = true -> iso y z = true -> iso x z = true.
Hypothesis attr_inv : forall x y, D x -> D y -> iso x y = true -> gc_key mode x = gc_key mode y.

(** every processed item has a representative among the templates, carrying the item's class *)
Definition represented (data : list item) (cs : list Z) (ts : list template) : Prop :=
  forall i x, nth_error data i = Some x ->
  exists t, In t ts /\ iso (fst t) x = true /\ nth_error cs i = Some (snd t).

Notation R := (Rc iso mode).

Lemma cs_nth data i x : Forall D data -> nth_error data i = Some x ->
  nth_error (map class_z (gc_fit iso mode data)) i = Some (class_z (class_of R data x)).
Proof. intros HD Hx. apply map_nth_error. exact (nth_error_gc_fit iso mode D iso_refl data i x HD Hx). Qed.

Lemma same_class_iso data x y : Forall D data -> In x data -> In y data ->
  (class_z (class_of R data x) = class_z (class_of R data y) <-> iso x y = true).
Proof.
  intros HD Ix Iy. rewrite <- (class_of_iso iso mode D iso_refl iso_sym iso_trans attr_inv data x y HD Ix Iy).
  split; [apply class_z_inj|now intros ->].
Qed.

(** the one-shot path: a template is an item of the data with the number of its class *)
Theorem oneshot_templates data picks : Forall D data ->
  let cs := map class_z (gc_fit iso mode data) in
  let ts := strat_sample data cs picks in
  coherent_iso iso D ts /\ (picks_valid data cs picks -> represented data cs ts).
Proof.
  intros HD cs ts.
  assert (Hpos : forall x k, In (x, k) ts -> In x data /\ k = class_z (class_of R data x)).
  { intros x k I. destruct (strat_sample_in _ _ _ _ _ I) as (i & Hx & Hk). split; [eapply nth_error_In, Hx|].
    unfold cs in Hk. rewrite (cs_nth data i x HD Hx) in Hk. now injection Hk. }
  split; [split|].
  - apply Forall_forall. intros x Hx. apply in_map_iff in Hx. destruct Hx as ([x' k] & <- & I).
    apply (proj1 (Forall_forall D data) HD). exact (proj1 (Hpos _ _ I)).
  - intros [x k] [x' k'] I I'. simpl. destruct (Hpos _ _ I) as (Ix & ->), (Hpos _ _ I') as (Ix' & ->).
    symmetry. now apply same_class_iso.
  - intros Hp i x Hx. pose proof (cs_nth data i x HD Hx) as Hc. fold cs in Hc.
    destruct (strat_sample_covers data cs picks i x _ Hp Hx Hc) as (x0 & I0). destruct (Hpos _ _ I0) as (I0' & E).
    exists (x0, class_z (class_of R data x)). split; [exact I0|]. split; [|exact Hc].
    apply (same_class_iso data x0 x HD I0'); [eapply nth_error_In, Hx|now symmetry].
Qed.

Theorem cluster_templates data ts cs ts' : coherent_iso iso D ts -> Forall D data ->
  cluster iso mode data ts = (cs, ts') -> coherent_iso iso D ts' /\ represented data cs ts'.
Proof.
  intros Hco HD E. split.
  - exact (proj1 (incremental_run iso mode D iso_refl iso_sym iso_trans attr_inv data ts cs ts' Hco HD E)).
  - exact (cluster_represented iso mode D iso_refl iso_sym iso_trans attr_inv data ts cs ts' Hco HD E).
Qed.

(** every template IS a processed item together with the class that item received *)
Definition from_data (data : list item) (cs : list Z) (ts : list template) : Prop :=
  forall t, In t ts -> exists i, nth_error data i = Some (fst t) /\ nth_error cs i = Some (snd t).

Lemma cluster_from_data data ts cs ts' : cluster iso mode data ts = (cs, ts') ->
  forall t, In t ts' -> In t ts \/ exists i, nth_error data i = Some (fst t) /\ nth_error cs i = Some (snd t).
Proof. rewrite cluster_classify_list. apply classify_list_from. Qed.

Lemma oneshot_from_data data picks : Forall D data ->
  from_data data (map class_z (gc_fit iso mode data)) (strat_sample data (map class_z (gc_fit iso mode data)) picks).
Proof. intros HD [x k] I. simpl. now apply strat_sample_in in I. Qed.

(** BatchCluster.fit from no templates, any batch size *)
Theorem fit_templates data bs picks : Forall D data -> valid_batch_size bs ->
  fst (fit iso mode data [] bs picks) = map class_z (gc_fit iso mode data) /\
  coherent_iso iso D (snd (fit iso mode data [] bs picks)) /\
  from_data data (fst (fit iso mode data [] bs picks)) (snd (fit iso mode data [] bs picks)) /\
  (picks_valid data (map class_z (gc_fit iso mode data)) picks ->
   represented data (fst (fit iso mode data [] bs picks)) (snd (fit iso mode data [] bs picks))).
Proof.
  intros HD Hbs.
  split; [apply batch_equals_oneshot; [exact Hbs|apply (iso_refl_in iso D iso_refl data HD)]|].
  destruct (Nat.eq_dec (length (match bs with Some b => chunks b data | None => [data] end)) 1) as [E|E].
  - rewrite (fit_oneshot iso mode data bs picks Hbs E). simpl.
    destruct (oneshot_templates data picks HD) as (H1 & H2). split; [exact H1|]. split; [now apply oneshot_from_data|exact H2].
  - rewrite (fit_is_cluster iso mode data [] bs picks Hbs (or_intror E)).
    destruct (cluster iso mode data []) as [cs ts'] eqn:Ec. simpl.
    assert (Hnil : coherent_iso iso D []) by (split; [constructor|intros t t' []]).
    destruct (cluster_templates data [] cs ts' Hnil HD Ec) as (H1 & H2). split; [exact H1|]. split; [|intros _; exact H2].
    intros t It. destruct (cluster_from_data data [] cs ts' Ec t It) as [[]|H]. exact H.
Qed.

(** the end-to-end incremental clause: a new item classified against the templates a previous fit returned joins the
    class of exactly the earlier items it is isomorphic to; when it is isomorphic to none of them it gets a class
    number no earlier item has and becomes the representative of that class *)
Theorem fit_then_lib_check data bs picks y : Forall D data -> valid_batch_size bs ->
  picks_valid data (map class_z (gc_fit iso mode data)) picks -> D y ->
  let cs := fst (fit iso mode data [] bs picks) in
  let ts := snd (fit iso mode data [] bs picks) in
  let c := fst (lib_check iso mode y ts) in
  (forall i x, nth_error data i = Some x -> (nth_error cs i = Some c <-> iso x y = true)) /\
  ((forall x, In x data -> iso x y = false) -> ~ In c cs /\ snd (lib_check iso mode y ts) = ts ++ [(y, c)]).
Proof.
  intros HD Hbs Hp Dy cs ts c.
  destruct (fit_templates data bs picks HD Hbs) as (Ecs & Hco & Hfrom & Hrep). specialize (Hrep Hp).
  fold ts in Hco, Hrep, Hfrom. fold cs in Hrep, Hfrom, Ecs.
  pose proof (incremental iso mode D iso_refl iso_sym iso_trans attr_inv y ts Hco Dy) as Hinc.
  unfold c. destruct (lib_check iso mode y ts) as [c0 ts1] eqn:El. simpl. destruct Hinc as (_ & _ & Hno).
  pose proof HD as HD'. rewrite Forall_forall in HD'.
  assert (First : forall i x, nth_error data i = Some x -> (nth_error cs i = Some c0 <-> iso x y = true)).
  { intros i x Hx. destruct (Hrep i x Hx) as (t & It & Rt & Ec). rewrite Ec.
    rewrite <- (lib_check_represented iso mode D iso_refl iso_sym iso_trans attr_inv ts t x y Hco (HD' x (nth_error_In _ _ Hx)) Dy It Rt), El.
    split; [now intros [= ->]|now intros ->]. }
  split; [exact First|].
  intros Hnone.
  assert (Hall : forall t, In t ts -> iso (fst t) y = false).
  { intros t It. destruct (Hfrom t It) as (i & Hx & _). apply Hnone. eapply nth_error_In; eauto. }
  destruct (Hno Hall) as (_ & _ & Ets). split; [|exact Ets].
  intros Ic. apply In_nth_error in Ic. destruct Ic as (i & Ei). pose proof Ei as Ei'.
  rewrite Ecs, (gc_fit_spec iso mode data (iso_refl_in iso D iso_refl data HD)), !nth_error_map in Ei'.
  destruct (nth_error data i) as [x|] eqn:Hx; [|discriminate].
  apply (First i x Hx) in Ei. rewrite (Hnone x (nth_error_In _ _ Hx)) in Ei. discriminate.
Qed.

End Templates.

Module Example_templates.
Import Example_abstract.
Definition cs0 := map class_z (gc_fit iso0 ANone data).
Definition fit0 := fit iso0 ANone data [] None [1; 0].

Lemma picks_ok : picks_valid data cs0 [1; 0].
Proof. unfold picks_valid. vm_compute. constructor; [lia|constructor; [lia|constructor]]. Qed.

Example fit_templates_nonvacuous :
  fit0 = ([0; 1; 0; 1]%Z, [(mk 17, 0%Z); (mk 25, 1%Z)]) /\
  coherent_iso iso0 (fun _ => True) (snd fit0) /\ represented iso0 data (fst fit0) (snd fit0).
Proof.
  split; [vm_compute; reflexivity|].
  destruct (fit_templates iso0 ANone (fun _ => True) iso0_refl iso0_sym iso0_trans attr0 data None [1; 0] data_D I)
    as (_ & H1 & _ & H2).
  split; [exact H1|exact (H2 picks_ok)].
Qed.

Example fit_then_lib_check_nonvacuous :
  fst (lib_check iso0 ANone (mk 13) (snd fit0)) = 0%Z /\
  lib_check iso0 ANone (mk 31) (snd fit0) = (2%Z, [(mk 17, 0%Z); (mk 25, 1%Z); (mk 31, 2%Z)]) /\
  (nth_error (fst fit0) 2 = Some (fst (lib_check iso0 ANone (mk 13) (snd fit0))) <-> iso0 (mk 17) (mk 13) = true) /\
  ~ In (fst (lib_check iso0 ANone (mk 31) (snd fit0))) (fst fit0).
Proof.
  split; [vm_compute; reflexivity|]. split; [vm_compute; reflexivity|].
  split.
  - exact (proj1 (fit_then_lib_check iso0 ANone (fun _ => True) iso0_refl iso0_sym iso0_trans attr0 data None [1; 0] (mk 13)
                    data_D I picks_ok I) 2 (mk 17) eq_refl).
  - apply (proj2 (fit_then_lib_check iso0 ANone (fun _ => True) iso0_refl iso0_sym iso0_trans attr0 data None [1; 0] (mk 31)
                    data_D I picks_ok I)).
    intros x [<-|[<-|[<-|[<-|[]]]]]; vm_compute; reflexivity.
Qed.
End Example_templates.
