(** C01 — extensionality of ITSConstruction.construct for EVERY option value and both store modes (theorem 36 lifted to
    model/C01_Opts.v): the ITS depends only on the label and bond maps of G and H *)
From Coq Require Import List NArith ZArith Bool.
From SK Require Import lib.LGraph lib.C01_GraphLemmas model.C01_Model model.C02_Model model.C01_Opts model.C01_String model.C01_Prem proof.C01_Proof proof.C01_OptsProof proof.C01_StringProof proof.C01_StringPipe proof.C01_RewriteProof proof.C01_PremProof.
Import ListNotations.
Local Open Scope Z_scope.

(** C01_extensional_opts *)
Theorem construct_ext_opts (o : copts) (G H G' H' : mgraph) : wf G -> wf H -> wf G' -> wf H' -> geq G' G -> geq H' H ->
  geq (its_construct_o o G' H') (its_construct_o o G H) /\ geq (its_construct_S o G' H') (its_construct_S o G H).
Proof.
  intros WG WH WG' WH' [LG AG] [LH AH]. split.
  - unfold its_construct_o. apply gen_ext; try assumption; try (split; assumption).
    intros n m. unfold its_node_o. rewrite (side_tuple_o_ext o G G' n (LG n)), (side_tuple_o_ext o H H' n (LH n)). reflexivity.
  - unfold its_construct_S. apply gen_ext; try assumption; try (split; assumption).
    intros n m. unfold its_node_S. rewrite (side_tuple_o_ext o G G' n (LG n)), (side_tuple_o_ext o H H' n (LH n)). reflexivity.
Qed.

(** non-vacuity: the re-rooted product molecule of C01_rewritten_nonvacuous against itself, under balance_its=True and
    ignore_aromaticity=True: different node lists, the same ITS maps in both store modes *)
Example C01_extensional_opts_nonvacuous :
  let o := CO true true dflt_nattr in
  let G := graph_of C01_StringPipe.ex_mp in let G' := graph_of ex_mp_rw in
  gnodes (its_construct_o o G' G') <> gnodes (its_construct_o o G G) /\
  geq (its_construct_o o G' G') (its_construct_o o G G) /\ geq (its_construct_S o G' G') (its_construct_S o G G).
Proof.
  cbv zeta. destruct C01_rewritten_nonvacuous as (_ & O1 & O2 & _ & _ & GE).
  destruct (reaction_okb_sound C01_StringPipe.ex_mp ex_mp_rw) as (_ & _ & W1 & W2 & _); [vm_compute; reflexivity|].
  split; [discriminate|]. apply construct_ext_opts; assumption.
Qed.
