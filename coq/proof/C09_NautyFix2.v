(** C09 — fixed point of [canonicalise_nauty] for EVERY reactant graph: no hypothesis on its automorphisms.
    From proof/C09_NautyFix.v: on every parsed presentation of the canonical reactant graph the exact back-end returns the
    canonical ids in increasing order, so the second run renames nothing. *)
From Coq Require Import List NArith ZArith Bool Arith Lia Permutation.
From SK Require Import lib.StrJoin lib.LGraph lib.C01_GraphLemmas model.C01_Model model.C09_Model model.C09_Strings
  proof.C09_Lists proof.C09_Canon proof.C09_Equiv proof.C09_Main proof.C09_Indep proof.C09_WL
  proof.C09_Nauty proof.C09_Graph proof.C09_Backends proof.C09_NautyFix.
From SK Require model.C08_Model proof.C08_Spec proof.C08_Sort.
Import ListNotations.

(** the atom_map key of the search on a parsed graph is the node id *)
Lemma amkey_parsed (X : mgraph) (m : N) : parsed X -> In m (node_ids X) -> C08_Model.amkey (to_c08 X) m = Z.of_N m.
Proof.
  intros (W & A & _) I. destruct (node_label_some I) as (a & La).
  unfold C08_Model.amkey, C08_Model.attr_of, label, to_c08. cbn [gnodes].
  rewrite (assoc_map_val (fun _ (a : gnode) => C08_Model.NA (el_str (g_el a)) (g_arom a) (g_ch a) (g_hc a) (Some (g_amap a))) m (gnodes X)).
  unfold label in La. rewrite La. cbn [option_map C08_Model.am]. apply (A m a). exact La.
Qed.

(** the second canonical order: the canonical ids in increasing order *)
Theorem nauty_order_after (G G' : mgraph) (f1 : N -> N) :
  wf G -> (forall a b, f1 a = f1 b -> a = b) ->
  (forall n, In n (node_ids G) -> f1 n = sigma_of (nauty_order G) n) ->
  parsed G' -> presents f1 G G' ->
  nauty_order G' = map f1 (nauty_order G).
Proof.
  intros WG Finj Fs PG2 RG2. pose proof PG2 as (WG2 & _). pose proof (nauty_enumerates G WG) as (O1 & I1).
  unfold nauty_order in *. apply (nauty_perm_canonical f1 (to_c08 G) (to_c08 G') Finj).
  - apply wf_to_c08. exact WG.
  - rewrite node_ids_to_c08. apply WG2.
  - apply geq_cov_presents. exact RG2.
  - intros w Iw. rewrite node_ids_to_c08 in Iw. apply (amkey_parsed G' (f1 w) PG2).
    apply (Permutation_in _ (Permutation_sym (presents_node_ids f1 G G' RG2))). apply in_map. exact Iw.
  - rewrite (map_ext_in f1 (sigma_of (C08_Model.nauty_perm (to_c08 G)))) by (intros n I; apply Fs; apply I1; exact I).
    unfold sigma_of. apply (C08_Sort.mapping_of_map _ O1).
Qed.

(** fixed point for every reactant graph: the second run on the graphs the first run returned *)
Theorem fixed_point_nauty_rerun (G H : mgraph) :
  parsed G -> parsed H -> shares_atom G H ->
  exists (pairs1 : list (N * N)) (Gc1 Hc1 : mgraph),
    canonicalise_nauty G H = Some (Gc1, pairs1, Hc1) /\
    exists (pairs2 : list (N * N)) (Gc2 Hc2 : mgraph),
      canonicalise_nauty Gc1 Hc1 = Some (Gc2, pairs2, Hc2) /\ same_upto_order Gc2 Gc1 /\ same_upto_order Hc2 Hc1.
Proof.
  intros PG PH Hs. pose proof PG as (WG & _). pose proof (nauty_enumerates G WG) as En1.
  set (Gc1 := canon_relabel (nauty_order G) G).
  destruct (fixed_point_maps G H Gc1 (nauty_order G) PG PH Hs En1 (relabelled_exact _ G))
    as (pairs1 & Hc1 & f1 & E1 & PGc & _ & Finj & Fs & RF1 & Hfix).
  exists pairs1, (set_amap Gc1), (set_amap Hc1). split; [exact E1|]. pose proof PGc as (WGc & _).
  pose proof (nauty_order_after G (set_amap Gc1) f1 WG Finj Fs PGc (relabelled_presents f1 G Gc1 RF1)) as Ord2.
  destruct (Hfix (nauty_order (set_amap Gc1)) (canon_relabel (nauty_order (set_amap Gc1)) (set_amap Gc1))
              (nauty_enumerates _ WGc) (relabelled_exact _ _)) as (pairs2 & Hc2' & E2 & S1 & S2).
  - intros n I. rewrite Ord2. apply (sigma_of_map f1 Finj).
  - exists pairs2, (set_amap (canon_relabel (nauty_order (set_amap Gc1)) (set_amap Gc1))), Hc2'.
    unfold canonicalise_nauty. auto.
Qed.

(** the same for every parsed presentation of the canonical graphs *)
Theorem fixed_point_nauty_all (G H : mgraph) :
  parsed G -> parsed H -> shares_atom G H ->
  exists (pairs1 : list (N * N)) (Gc1 Hc1 : mgraph),
    canonicalise_nauty G H = Some (Gc1, pairs1, Hc1) /\
    forall (G' H' : mgraph), parsed G' -> parsed H' -> same_graph G' Gc1 -> same_graph H' Hc1 ->
      nauty_order G' = map N.of_nat (seq 1 (length (gnodes G))) /\
      exists (pairs2 : list (N * N)) (Gc2 Hc2 : mgraph),
        canonicalise_nauty G' H' = Some (Gc2, pairs2, Hc2) /\ same_graph Gc2 Gc1 /\ same_graph Hc2 Hc1.
Proof.
  intros PG PH Hs. pose proof PG as (WG & _).
  pose proof (nauty_enumerates G WG) as En1. pose proof En1 as (O1 & I1).
  destruct (fixed_point_sg G H (canon_relabel (nauty_order G) G) (nauty_order G) PG PH Hs En1 (relabelled_exact _ G))
    as (pairs1 & Gc1 & Hc1 & f1 & E1 & Finj & Fs & Hfix).
  exists pairs1, Gc1, Hc1. split; [exact E1|].
  intros G' H' PG2 PH2 SG SH. pose proof PG2 as (WG2 & _).
  destruct (Hfix G' H' PG2 PH2 SG SH) as (RG2 & Hrun).
  pose proof (nauty_order_after G G' f1 WG Finj Fs PG2 RG2) as Ord2.
  split.
  - rewrite Ord2. rewrite (map_ext_in f1 (sigma_of (nauty_order G))) by (intros n I; apply Fs; apply I1; exact I).
    unfold sigma_of. rewrite (C08_Sort.mapping_of_map _ O1). f_equal. f_equal.
    assert (P : Permutation (nauty_order G) (node_ids G)) by (apply NoDup_Permutation; [exact O1|apply WG|exact I1]).
    rewrite (Permutation_length P). unfold node_ids. apply map_length.
  - pose proof (nauty_enumerates G' WG2) as En2.
    destruct (Hrun (nauty_order G') (canon_relabel (nauty_order G') G') En2 (relabelled_exact _ _))
      as (pairs2 & Gc2 & Hc2 & E2 & EG & S1 & S2).
    + intros n I. rewrite Ord2. apply (sigma_of_map f1 Finj).
    + exists pairs2, Gc2, Hc2. unfold canonicalise_nauty. rewrite E2. auto.
Qed.

Corollary fixed_point_nauty_sg (G H : mgraph) :
  parsed G -> parsed H -> shares_atom G H ->
  exists (pairs1 : list (N * N)) (Gc1 Hc1 : mgraph),
    canonicalise_nauty G H = Some (Gc1, pairs1, Hc1) /\
    forall (G' H' : mgraph), parsed G' -> parsed H' -> same_graph G' Gc1 -> same_graph H' Hc1 ->
      exists (pairs2 : list (N * N)) (Gc2 Hc2 : mgraph),
        canonicalise_nauty G' H' = Some (Gc2, pairs2, Hc2) /\ same_graph Gc2 Gc1 /\ same_graph Hc2 Hc1.
Proof.
  intros PG PH Hs. destruct (fixed_point_nauty_all G H PG PH Hs) as (pairs1 & Gc1 & Hc1 & E1 & Hfix).
  exists pairs1, Gc1, Hc1. split; [exact E1|]. intros G' H' PG2 PH2 SG SH. apply (Hfix G' H' PG2 PH2 SG SH).
Qed.

(** string level: CanonRSMI(backend="nauty").canonical_rsmi is a fixed point for every reaction, relative to the RDKit contracts *)
Theorem canonical_rsmi_fixed_point_nauty_all (W : mgraph -> str) (P : str -> option (mgraph * mgraph)) (G H : mgraph) :
  writer_ok W ->
  parsed G -> parsed H -> shares_atom G H ->
  (forall Gc1 pairs1 Hc1, canonicalise_nauty G H = Some (Gc1, pairs1, Hc1) -> reads_back W P Gc1 Hc1) ->
  exists s G' H', canonical_rsmi W (canonicalise_nauty G H) = Some s /\ P s = Some (G', H') /\
                  canonical_rsmi W (canonicalise_nauty G' H') = Some s.
Proof.
  intros HW PG PH Hs HP.
  destruct (fixed_point_nauty_sg G H PG PH Hs) as (pairs1 & Gc1 & Hc1 & E1 & Hfix).
  destruct (HP Gc1 pairs1 Hc1 E1) as (G' & H' & EP & PG2 & PH2 & SG & SH).
  destruct (Hfix G' H' PG2 PH2 SG SH) as (pairs2 & Gc2 & Hc2 & E2 & S1 & S2).
  exists (W Gc1 ++ GG ++ W Hc1), G', H'. rewrite E1. split; [reflexivity|]. split; [exact EP|].
  rewrite E2. unfold canonical_rsmi. rewrite (HW _ _ S1), (HW _ _ S2). reflexivity.
Qed.

(** non-vacuity on a reactant graph WITH a non-trivial automorphism (ethane-like C-C, both atoms alike; the product
    distinguishes them): the search reports two minimal leaves, and the second run returns the canonical reaction unchanged *)
Definition sy_G : mgraph := LG [(5%N, GN 70%N false 3 0 None 5); (9%N, GN 70%N false 3 0 None 9)] [(9%N, 5%N, 2%Z)].
Definition sy_H : mgraph := LG [(9%N, GN 70%N false 2 (-1) None 9); (5%N, GN 70%N false 3 0 None 5)] [(5%N, 9%N, 2%Z)].
Definition sy_c1 := canonicalise_nauty sy_G sy_H.
Example ex_symmetric_fixed_point :
  length (snd (C08_Model.nauty_acc (to_c08 sy_G))) = 2%nat /\
  match sy_c1 with
  | Some (a, _, b) =>
      nauty_order a = [1%N; 2%N] /\
      option_map (fun r : mgraph * list (N * N) * mgraph => (fst (fst r), snd r)) (canonicalise_nauty a b) = Some (a, b)
  | None => False
  end.
Proof. vm_compute. repeat split. Qed.
Example ex_symmetric_hyps : parsed sy_G /\ parsed sy_H /\ (exists s, In s (node_ids sy_G) /\ In s (node_ids sy_H)).
Proof.
  split; [|split; [|exists 5%N; simpl; auto]].
  - apply parsedb_sound. reflexivity.
  - apply parsedb_sound. reflexivity.
Qed.
