(** C10 — proofs: get_rc seen through [label] / [adj]; the centre of a centre is the centre. *)
From Coq Require Import List NArith ZArith Bool Lia.
From SK Require Import lib.LGraph lib.StrJoin model.C10_Model proof.C10_Views proof.C10_Build proof.C10_Copy.
Import ListNotations.
Local Open Scope Z_scope.

Definition rca (I : gr) (n : N) : natt := match label I n with Some a => rc_attr a | None => na_empty end.
Definition ENS (I rc : gr) (n : N) : gr := if has_node rc n then rc else add_node rc n (rca I n).
Definition selc (I : gr) (k : bool) (u v : N) (x : eatt) : bool := if k then is_H I u && is_H I v else changed x.
Definition stepk (I : gr) (k : bool) (rc : gr) (e : N * N * eatt) : gr :=
  let '(u, v, x) := e in
  if selc I k u v x then
    let rc1 := ENS I (ENS I rc u) v in
    if k then (if has_edge rc1 u v then rc1 else add_edge rc1 u v x) else add_edge rc1 u v x
  else rc.

Lemma ensure_node_ENS I rc n a : label I n = Some a -> ensure_node I rc n = ENS I rc n.
Proof.
  intros L. unfold ensure_node, ENS, rca. rewrite L. destruct (has_node rc n) eqn:E; [reflexivity|].
  rewrite add_node_fresh by exact E. reflexivity.
Qed.
Lemma ensure_node_hh_ENS I rc n a : label I n = Some a -> a_tgh a <> None -> ensure_node_hh I rc n = ENS I rc n.
Proof.
  intros L T. unfold ensure_node_hh, ENS, rca. rewrite L. destruct (has_node rc n) eqn:E; [reflexivity|].
  rewrite add_node_fresh by exact E. destruct a as [el ar hc ch am [t|]]; [reflexivity|simpl in T; congruence].
Qed.

Lemma label_ENS I rc n m : label (ENS I rc n) m = if N.eqb m n then Some (dflt (label rc n) (rca I n)) else label rc m.
Proof.
  unfold ENS, has_node. destruct (label rc n) as [b|] eqn:E.
  - destruct (N.eqb_spec m n) as [->|]; [rewrite E|]; reflexivity.
  - rewrite label_add_node, E. reflexivity.
Qed.
Lemma gedges_ENS I rc n : gedges (ENS I rc n) = gedges rc.
Proof. unfold ENS. destruct (has_node rc n); [reflexivity|apply gedges_add_node]. Qed.
Lemma gwf_ENS I rc n : gwf rc -> gwf (ENS I rc n).
Proof. unfold ENS. destruct (has_node rc n); [auto|apply gwf_add_node]. Qed.
Lemma label_ENS2 I rc u v m :
  label (ENS I (ENS I rc u) v) m = if N.eqb m u || N.eqb m v then Some (dflt (label rc m) (rca I m)) else label rc m.
Proof.
  rewrite !label_ENS. destruct (N.eqb_spec m v) as [->|].
  - rewrite orb_true_r. destruct (N.eqb_spec v u) as [->|]; reflexivity.
  - rewrite orb_false_r. destruct (N.eqb_spec m u) as [->|]; reflexivity.
Qed.
Lemma has_node_ENS2 I rc u v : has_node (ENS I (ENS I rc u) v) u = true /\ has_node (ENS I (ENS I rc u) v) v = true.
Proof. unfold has_node. rewrite !label_ENS2, !N.eqb_refl, orb_true_r. simpl. auto. Qed.

Lemma label_stepk I k rc u v x m :
  label (stepk I k rc (u, v, x)) m =
  if selc I k u v x && (N.eqb m u || N.eqb m v) then Some (dflt (label rc m) (rca I m)) else label rc m.
Proof.
  unfold stepk. destruct (selc I k u v x); [|reflexivity]. simpl.
  destruct (has_node_ENS2 I rc u v) as [Hu Hv].
  assert (forall y, label (add_edge (ENS I (ENS I rc u) v) u v y) m = label (ENS I (ENS I rc u) v) m) as Hadd.
  { intros y. unfold label. rewrite gnodes_add_edge_exist by assumption. reflexivity. }
  destruct k; [destruct (has_edge _ u v)|]; rewrite ?Hadd; apply label_ENS2.
Qed.
Lemma adj_stepk I k rc u v x p q :
  adj (stepk I k rc (u, v, x)) p q =
  if selc I k u v x && pair_eqb u v p q
  then Some (match adj rc u v with Some old => if k then old else ea_update x old | None => x end)
  else adj rc p q.
Proof.
  unfold stepk. destruct (selc I k u v x); [|reflexivity]. simpl.
  assert (forall a b, adj (ENS I (ENS I rc u) v) a b = adj rc a b) as HE by (intros; unfold adj; rewrite !gedges_ENS; reflexivity).
  destruct k.
  - unfold has_edge. rewrite HE. destruct (adj rc u v) as [old|] eqn:A.
    + rewrite HE. destruct (pair_eqb u v p q) eqn:P; [|reflexivity]. rewrite <- (adj_pair rc _ _ _ _ P). exact A.
    + rewrite adj_add_edge, !HE, A. reflexivity.
  - rewrite adj_add_edge, !HE. reflexivity.
Qed.
Lemma gwf_stepk I k rc e : gwf rc -> gwf (stepk I k rc e).
Proof.
  destruct e as [[u v] x]. intros W. unfold stepk. destruct (selc I k u v x); [|exact W].
  pose proof (gwf_ENS I _ v (gwf_ENS I rc u W)) as W2.
  destruct k; [destruct (has_edge _ u v)|]; auto using gwf_add_edge.
Qed.

Definition hitk (I : gr) (k : bool) (p q : N) (es : list (N * N * eatt)) : bool :=
  existsb (fun e : N * N * eatt => let '(u, v, x) := e in selc I k u v x && pair_eqb u v p q) es.
Definition touchk (I : gr) (k : bool) (m : N) (es : list (N * N * eatt)) : bool :=
  existsb (fun e : N * N * eatt => let '(u, v, x) := e in selc I k u v x && (N.eqb m u || N.eqb m v)) es.

Lemma fold_stepk_label I k es : forall rc m,
  label (fold_left (stepk I k) es rc) m =
  match label rc m with Some b => Some b | None => if touchk I k m es then Some (rca I m) else None end.
Proof.
  induction es as [|[[u v] x] r IH]; intros rc m; [simpl; destruct (label rc m); reflexivity|].
  cbn [fold_left]. rewrite IH, label_stepk. simpl touchk.
  destruct (label rc m) as [b|]; simpl.
  - destruct (selc I k u v x && _); reflexivity.
  - destruct (selc I k u v x && (N.eqb m u || N.eqb m v)); reflexivity.
Qed.

Lemma fold_stepk_adj I k es : forall rc p q,
  (forall u v x, In (u, v, x) es -> adj I u v = Some x) ->
  (adj rc p q = None \/ adj rc p q = adj I p q) ->
  adj (fold_left (stepk I k) es rc) p q = if hitk I k p q es then adj I p q else adj rc p q.
Proof.
  induction es as [|[[u v] x] r IH]; intros rc p q Hd Hinv; [reflexivity|].
  cbn [fold_left].
  change (hitk I k p q ((u, v, x) :: r)) with ((selc I k u v x && pair_eqb u v p q) || hitk I k p q r).
  assert (adj I u v = Some x) as Ax by (apply Hd; left; reflexivity).
  assert (forall u' v' x', In (u', v', x') r -> adj I u' v' = Some x') as Hd' by (intros; apply Hd; right; assumption).
  destruct (selc I k u v x && pair_eqb u v p q) eqn:C; cbn [orb].
  - apply andb_true_iff in C. destruct C as [C P].
    assert (adj (stepk I k rc (u, v, x)) p q = adj I p q) as E.
    { rewrite adj_stepk, C, P. simpl. rewrite (adj_pair rc _ _ _ _ P), <- (adj_pair I _ _ _ _ P), Ax.
      destruct Hinv as [H|H]; rewrite H; [reflexivity|]. rewrite <- (adj_pair I _ _ _ _ P), Ax.
      destruct k; [reflexivity|rewrite ea_update_idem; reflexivity]. }
    rewrite (IH _ p q Hd' (or_intror E)). destruct (hitk I k p q r); [reflexivity|exact E].
  - assert (adj (stepk I k rc (u, v, x)) p q = adj rc p q) as E by (rewrite adj_stepk, C; reflexivity).
    assert (adj (stepk I k rc (u, v, x)) p q = None \/ adj (stepk I k rc (u, v, x)) p q = adj I p q) as Hinv'
      by (destruct Hinv as [H|H]; [left|right]; congruence).
    rewrite (IH _ p q Hd' Hinv'). destruct (hitk I k p q r); [reflexivity|exact E].
Qed.
Lemma fold_stepk_gwf I k es : forall rc, gwf rc -> gwf (fold_left (stepk I k) es rc).
Proof. induction es as [|e r IH]; intros rc W; [exact W|]. simpl. apply IH, gwf_stepk, W. Qed.

Definition is_ok (I : gr) : Prop := gwf I /\ forall n a, label I n = Some a -> a_tgh a <> None.

Lemma get_rc_fold I : is_ok I ->
  get_rc I = fold_left (stepk I true) (edges_iter I) (fold_left (stepk I false) (edges_iter I) g_empty).
Proof.
  intros [W T]. unfold get_rc. cbv zeta.
  assert (forall u v x, In (u, v, x) (edges_iter I) -> exists a b, label I u = Some a /\ label I v = Some b) as Hl.
  { intros u v x Hin. destruct (edges_iter_ends I u v x W Hin) as [Hu Hv].
    apply has_node_label in Hu, Hv. destruct Hu as [a Ha]. destruct Hv as [b Hb]. eauto. }
  rewrite (fold_left_ext_in (rc_step1 I) (stepk I false)).
  - apply fold_left_ext_in. intros acc [[u v] x] Hin. destruct (Hl u v x Hin) as (a & b & La & Lb).
    unfold rc_step2, stepk, selc. destruct (is_H I u && is_H I v); [|reflexivity].
    rewrite (ensure_node_hh_ENS I acc u a La (T u a La)). rewrite (ensure_node_hh_ENS I _ v b Lb (T v b Lb)). reflexivity.
  - intros acc [[u v] x] Hin. destruct (Hl u v x Hin) as (a & b & La & Lb).
    unfold rc_step1, stepk, selc. destruct (changed x); [|reflexivity].
    rewrite (ensure_node_ENS I acc u a La), (ensure_node_ENS I _ v b Lb). reflexivity.
Qed.

(** selection of a bond: changed, or joining two hydrogens *)
Definition sel (I : gr) (u v : N) (x : eatt) : bool := changed x || (is_H I u && is_H I v).

Lemma selc_sym I k u v x : selc I k u v x = selc I k v u x.
Proof. unfold selc. destruct k; [apply andb_comm|reflexivity]. Qed.

Lemma hitk_spec I k p q : gwf I ->
  hitk I k p q (edges_iter I) = match adj I p q with Some x => selc I k p q x | None => false end.
Proof.
  intros W. apply eq_true_iff_eq. split.
  - unfold hitk. rewrite existsb_exists. intros ([[u v] x] & Hin & C). apply andb_true_iff in C. destruct C as [C P].
    apply (edges_iter_data I u v x W) in Hin. rewrite <- (adj_pair I _ _ _ _ P), Hin.
    apply pair_eqb_spec in P. destruct P as [[<- <-]|[<- <-]]; [exact C|rewrite selc_sym; exact C].
  - destruct (adj I p q) as [x|] eqn:A; [|discriminate]. intros C.
    destruct (adj_in_edges_iter I p q x W A) as (u & v & Hin & P).
    unfold hitk. apply existsb_exists. exists (u, v, x). split; [exact Hin|]. rewrite P, andb_true_r.
    apply pair_eqb_spec in P. destruct P as [[-> ->]|[-> ->]]; [exact C|rewrite selc_sym; exact C].
Qed.

Theorem get_rc_adj I p q : is_ok I ->
  adj (get_rc I) p q = match adj I p q with Some x => if sel I p q x then Some x else None | None => None end.
Proof.
  intros HI. pose proof (proj1 HI) as W. rewrite (get_rc_fold I HI).
  assert (forall u v x, In (u, v, x) (edges_iter I) -> adj I u v = Some x) as Hd by (intros; apply (edges_iter_data I); assumption).
  set (rc1 := fold_left (stepk I false) (edges_iter I) g_empty).
  assert (adj rc1 p q = if hitk I false p q (edges_iter I) then adj I p q else None) as E1.
  { unfold rc1. rewrite fold_stepk_adj by (auto; left; reflexivity). reflexivity. }
  rewrite fold_stepk_adj; [|exact Hd|rewrite E1; destruct (hitk I false p q _); auto].
  rewrite E1, !hitk_spec by exact W. unfold sel, selc. destruct (adj I p q) as [x|]; [|reflexivity].
  destruct (is_H I p && is_H I q); destruct (changed x); reflexivity.
Qed.

Definition touched (I : gr) (m : N) : bool := touchk I false m (edges_iter I) || touchk I true m (edges_iter I).

Theorem get_rc_label I m : is_ok I ->
  label (get_rc I) m = if touched I m then Some (rca I m) else None.
Proof.
  intros HI. rewrite (get_rc_fold I HI), !fold_stepk_label. unfold touched. simpl.
  destruct (touchk I false m _); reflexivity.
Qed.
Lemma get_rc_gwf I : is_ok I -> gwf (get_rc I).
Proof. intros HI. rewrite (get_rc_fold I HI). apply fold_stepk_gwf, fold_stepk_gwf, gwf_empty. Qed.

(** a node is touched iff it has a selected bond *)
Lemma touchk_spec I k m : gwf I ->
  touchk I k m (edges_iter I) = true <-> exists w x, adj I m w = Some x /\ selc I k m w x = true.
Proof.
  intros W. unfold touchk. rewrite existsb_exists. split.
  - intros ([[u v] x] & Hin & C). apply andb_true_iff in C. destruct C as [C E].
    apply (edges_iter_data I u v x W) in Hin. apply orb_true_iff in E. rewrite !N.eqb_eq in E. destruct E as [->| ->].
    + exists v, x. auto.
    + exists u, x. rewrite adj_sym, selc_sym. auto.
  - intros (w & x & A & C).
    destruct (adj_in_edges_iter I m w x W A) as (u & v & Hin & P). exists (u, v, x). split; [exact Hin|].
    apply pair_eqb_spec in P. destruct P as [[-> ->]|[-> ->]].
    + rewrite C, N.eqb_refl. reflexivity.
    + rewrite selc_sym, C, N.eqb_refl, orb_true_r. reflexivity.
Qed.
Lemma touched_spec I m : gwf I -> touched I m = true <-> exists w x, adj I m w = Some x /\ sel I m w x = true.
Proof.
  intros W. unfold touched. rewrite orb_true_iff, !touchk_spec by exact W. unfold sel, selc. split.
  - intros [(w & x & A & C)|(w & x & A & C)]; exists w, x; rewrite C; auto using orb_true_r.
  - intros (w & x & A & C). apply orb_true_iff in C. destruct C as [C|C]; [left|right]; exists w, x; auto.
Qed.
