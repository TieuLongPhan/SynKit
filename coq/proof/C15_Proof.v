(** C15 — proofs about the executable model of CRNHyperGraph (model/C15_Model.v).

    Contents
      1. the store invariant [Inv]; exact indices ([indexed])
      2. index lemmas (idx_add / idx_touch / discard / prune)
      3. preservation of [Inv] by every operation, every outcome (add, remove_rxn with the
         closed form of its loops, labels, remove_species, merge)
      4. worlds: step / reachable / frame; [Inv] written out
      5. id generation: generated ids are fresh; the loop bound suffices
      6. refinement to the abstract store  id ↦ reaction  (the [edges] map); failing calls
      7. incidence = products − reactants
      8. merge: what it stores
      9. histories: a stored reaction stays unless an operation names it
      10. non-vacuity examples *)
From stdpp Require Import gmap strings sets pretty.
From SK Require Import model.C15_Model.
Local Open Scope string_scope.

(** * 1. The invariant *)

Definition producers (E : gmap string rxn) (x : string) : gset string :=
  dom (filter (λ p, x ∈ dom (r_rhs p.2)) E).
Definition consumers (E : gmap string rxn) (x : string) : gset string :=
  dom (filter (λ p, x ∈ dom (r_lhs p.2)) E).

Lemma elem_of_producers E x e :
  e ∈ producers E x ↔ ∃ rx, E !! e = Some rx ∧ x ∈ dom (r_rhs rx).
Proof.
  unfold producers. rewrite elem_of_dom. unfold is_Some. by setoid_rewrite map_filter_lookup_Some.
Qed.
Lemma elem_of_consumers E x e :
  e ∈ consumers E x ↔ ∃ rx, E !! e = Some rx ∧ x ∈ dom (r_lhs rx).
Proof.
  unfold consumers. rewrite elem_of_dom. unfold is_Some. by setoid_rewrite map_filter_lookup_Some.
Qed.

(** [m] lists, per species, exactly the reactions of [E] whose side [sd] mentions it: the two
    index clauses of [Inv] are the instances [r_rhs] / [s_in] and [r_lhs] / [s_out] *)
Definition indexed (sd : rxn → side) (m : gmap string (gset string)) (E : gmap string rxn) : Prop :=
  ∀ x e, e ∈ default ∅ (m !! x) ↔ ∃ rx, E !! e = Some rx ∧ x ∈ dom (sd rx).

Lemma indexed_producers m E : indexed r_rhs m E ↔ ∀ x, default ∅ (m !! x) = producers E x.
Proof.
  split.
  - intros H x. apply set_eq. intros e. rewrite elem_of_producers. apply H.
  - intros H x e. by rewrite H, elem_of_producers.
Qed.
Lemma indexed_consumers m E : indexed r_lhs m E ↔ ∀ x, default ∅ (m !! x) = consumers E x.
Proof.
  split.
  - intros H x. apply set_eq. intros e. rewrite elem_of_consumers. apply H.
  - intros H x e. by rewrite H, elem_of_consumers.
Qed.

(** occurring species of an edge map *)
Definition occurs (E : gmap string rxn) (x : string) : Prop :=
  ∃ e rx, E !! e = Some rx ∧ x ∈ rxn_species rx.

Record Inv (s : net) : Prop := {
  inv_in : ∀ x, default ∅ (s_in s !! x) = producers (edges s) x;
  inv_out : ∀ x, default ∅ (s_out s !! x) = consumers (edges s) x;
  inv_occ : ∀ x, occurs (edges s) x → x ∈ species s;
  inv_sp : ∀ x, x ∈ species s → occurs (edges s) x ∨ x ∈ kept s;
  inv_mol : dom (mol s) ⊆ species s;
  inv_nodup : NoDup (order s);
  inv_order : ∀ e, e ∈ order s ↔ is_Some (edges s !! e);
  inv_nonempty : ∀ e rx, edges s !! e = Some rx → rxn_empty rx = false;
  inv_rule : ∀ e rx, edges s !! e = Some rx → r_rule rx ≠ ""
}.

(** The index / species / label part of the invariant, with a reaction id [e]
    that has already been popped from the edge map but is still listed in the
    out-index of the species in [Dout] and the in-index of those in [Din];
    [P] are species whose orphan test is still due.  A loop invariant for remove_rxn in this
    style; the proofs below describe the loops by [pruned] and do not use it. *)
Record PInv (e : string) (Dout Din P : gset string) (s : net) : Prop := {
  p_in : ∀ x e', e' ∈ default ∅ (s_in s !! x) ↔
                 (∃ rx, edges s !! e' = Some rx ∧ x ∈ dom (r_rhs rx)) ∨ (e' = e ∧ x ∈ Din);
  p_out : ∀ x e', e' ∈ default ∅ (s_out s !! x) ↔
                 (∃ rx, edges s !! e' = Some rx ∧ x ∈ dom (r_lhs rx)) ∨ (e' = e ∧ x ∈ Dout);
  p_occ : ∀ x, occurs (edges s) x → x ∈ species s;
  p_sp : ∀ x, x ∈ species s → occurs (edges s) x ∨ x ∈ kept s ∨ x ∈ Dout ∪ Din ∪ P;
  p_mol : dom (mol s) ⊆ species s
}.

Lemma Inv_PInv e s : Inv s → PInv e ∅ ∅ ∅ s.
Proof.
  intros HI. split.
  - intros x e'. rewrite (inv_in _ HI), elem_of_producers, elem_of_empty. tauto.
  - intros x e'. rewrite (inv_out _ HI), elem_of_consumers, elem_of_empty. tauto.
  - apply HI.
  - intros x Hx. destruct (inv_sp _ HI x Hx); auto.
  - apply HI.
Qed.

Lemma indexed_empty sd : indexed sd ∅ ∅.
Proof.
  intros x e. rewrite !lookup_empty. split; [by intros ?%elem_of_empty|by intros (?&?&?)].
Qed.

Lemma Inv_init : Inv empty_net.
Proof.
  split; cbn.
  - apply indexed_producers, indexed_empty.
  - apply indexed_consumers, indexed_empty.
  - intros x (e & rx & H & _). by rewrite lookup_empty in H.
  - by intros x ?%elem_of_empty.
  - by rewrite dom_empty_L.
  - constructor.
  - intros e. rewrite lookup_empty. split; [by intros ?%elem_of_nil|by intros [? ?]].
  - intros e rx. by rewrite lookup_empty.
  - intros e rx. by rewrite lookup_empty.
Qed.

(** * 2. Index lemmas *)

Lemma idx_add_lookup e ks m x :
  default ∅ (idx_add e ks m !! x) =
  (if decide (x ∈ ks) then {[e]} ∪ default ∅ (m !! x) else default ∅ (m !! x)).
Proof.
  unfold idx_add. revert ks.
  apply (set_fold_ind_L (λ acc (ks : gset string), default ∅ (acc !! x) =
           if decide (x ∈ ks) then {[e]} ∪ default ∅ (m !! x) else default ∅ (m !! x))).
  - by rewrite decide_False by apply not_elem_of_empty.
  - intros y X acc Hy IH. destruct (decide (x = y)) as [->|Hne].
    + rewrite lookup_insert, decide_True by (by apply elem_of_union_l, elem_of_singleton).
      cbn. by rewrite IH, decide_False.
    + rewrite lookup_insert_ne, IH by done. apply decide_ext.
      rewrite elem_of_union, elem_of_singleton. tauto.
Qed.

Lemma idx_touch_lookup ks m x : default ∅ (idx_touch ks m !! x) = default ∅ (m !! x).
Proof.
  unfold idx_touch. revert ks.
  apply (set_fold_ind_L (λ acc (_ : gset string), default ∅ (acc !! x) = default ∅ (m !! x))); [done|].
  intros y X acc Hy IH. destruct (decide (x = y)) as [->|Hne].
  - by rewrite lookup_insert.
  - by rewrite lookup_insert_ne.
Qed.

Lemma default_delete_empty (m : gmap string (gset string)) x y :
  default ∅ (m !! x) = ∅ → default ∅ (delete x m !! y) = default ∅ (m !! y).
Proof.
  intros Hx. destruct (decide (y = x)) as [->|Hne].
  - by rewrite lookup_delete, Hx.
  - by rewrite lookup_delete_ne.
Qed.

Lemma default_discard (m : gmap string (gset string)) e x y :
  default ∅ (<[x := default ∅ (m !! x) ∖ {[e]}]> m !! y) =
  if decide (y = x) then default ∅ (m !! x) ∖ {[e]} else default ∅ (m !! y).
Proof.
  destruct (decide (y = x)) as [->|Hne].
  - by rewrite lookup_insert.
  - by rewrite lookup_insert_ne.
Qed.

Lemma default_alter_empty (m : gmap string (gset string)) x y :
  default ∅ (alter (λ _, ∅) x m !! y) = if decide (y = x) then ∅ else default ∅ (m !! y).
Proof.
  destruct (decide (y = x)) as [->|Hne].
  - rewrite lookup_alter. by destruct (m !! x).
  - by rewrite lookup_alter_ne.
Qed.

Lemma default_delete_alter_empty (m : gmap string (gset string)) x y :
  default ∅ (delete x (alter (λ _, ∅) x m) !! y) = if decide (y = x) then ∅ else default ∅ (m !! y).
Proof.
  rewrite default_delete_empty; [apply default_alter_empty|]. by rewrite default_alter_empty, decide_True.
Qed.

(** * 3. Preservation *)

Lemma rxn_empty_false rx : rxn_empty rx = false ↔ rxn_species rx ≠ ∅.
Proof.
  unfold rxn_empty, rxn_species. rewrite bool_decide_eq_false. split.
  - intros H Hd. apply H. apply empty_union_L in Hd as [H1 H2].
    by apply dom_empty_inv_L in H1, H2.
  - intros H [H1 H2]. apply H. rewrite H1, H2. set_solver.
Qed.

Lemma set_counters_Inv s c : Inv s → Inv (set_counters s c).
Proof. intros [? ? ? ? ? ? ? ? ?]. by split. Qed.

Lemma indexed_register sd m E e r ks :
  indexed sd m E → E !! e = None →
  indexed sd (idx_add e (dom (sd r)) (idx_touch ks m)) (<[e := r]> E).
Proof.
  intros Hm Hn x e'. rewrite idx_add_lookup, idx_touch_lookup.
  destruct (decide (e' = e)) as [->|Hne].
  - rewrite lookup_insert. split.
    + intros He. exists r. split; [done|]. destruct (decide (x ∈ dom (sd r))); [done|].
      apply Hm in He as (rx & He & _). congruence.
    + intros (rx & [= <-] & Hx). rewrite decide_True by done. by apply elem_of_union_l, elem_of_singleton.
  - rewrite lookup_insert_ne, <- (Hm x e') by done. destruct (decide _); [|done].
    rewrite elem_of_union, elem_of_singleton. tauto.
Qed.

Lemma occurs_insert E e r x : E !! e = None → occurs (<[e := r]> E) x ↔ x ∈ rxn_species r ∨ occurs E x.
Proof.
  intros Hn. split.
  - intros (e' & rx & [[-> ->]|[_ He']]%lookup_insert_Some & Hx); [by left|right; by exists e', rx].
  - intros [Hx|(e' & rx & He' & Hx)]; [exists e, r; by rewrite lookup_insert|].
    exists e', rx. rewrite lookup_insert_ne; [done|]. intros <-. congruence.
Qed.

Lemma register_Inv s e r :
  Inv s → edges s !! e = None → rxn_empty r = false → r_rule r ≠ "" → Inv (register s e r).
Proof.
  intros HI Hn Hne Hrule. split; cbn [register species edges order s_in s_out mol kept].
  - apply indexed_producers, indexed_register; [apply indexed_producers, HI|done].
  - apply indexed_consumers, indexed_register; [apply indexed_consumers, HI|done].
  - intros x [Hx|Hx]%occurs_insert; [by apply elem_of_union_r| |done].
    by apply elem_of_union_l, (inv_occ _ HI).
  - intros x. rewrite occurs_insert, elem_of_union by done.
    intros [[?|?]%(inv_sp _ HI)|?]; auto.
  - etrans; [apply HI|apply union_subseteq_l].
  - apply NoDup_app. split; [apply HI|]. split; [|apply NoDup_singleton].
    intros e' He' ->%elem_of_list_singleton. apply (inv_order _ HI) in He'. rewrite Hn in He'. by destruct He'.
  - intros e'. rewrite elem_of_app, elem_of_list_singleton, (inv_order _ HI), lookup_insert_is_Some'.
    split; intros [?|?]; auto.
  - intros e' rx [[_ <-]|[_ ?]]%lookup_insert_Some; [done|by eapply (inv_nonempty _ HI)].
  - intros e' rx [[_ <-]|[_ ?]]%lookup_insert_Some; [done|by eapply (inv_rule _ HI)].
Qed.

(** ids produced by the generator are not keys of the edge map *)
Lemma fresh_spec fuel rule cnt E c e :
  fresh fuel rule cnt E = Some (c, e) → E !! e = None ∧ e = gen_id rule c ∧ (cnt < c)%N.
Proof.
  revert cnt. induction fuel as [|f IH]; intros cnt; cbn; [done|].
  destruct (decide _) as [Hs|Hs].
  - intros H. apply IH in H as (?&?&?). split_and!; [done..|lia].
  - intros [= <- <-]. split_and!; [by apply eq_None_not_Some|done|lia].
Qed.

Lemma next_id_fresh s rule c e : next_id s rule = Some (c, e) → edges s !! e = None.
Proof. unfold next_id. intros H. by apply fresh_spec in H as (?&?&?). Qed.

Lemma norm_rule_ne rule : norm_rule rule ≠ "".
Proof. unfold norm_rule. by destruct (decide _). Qed.

Lemma add_Inv s l r rule eid : Inv s → Inv (add s l r rule eid).1.1.
Proof.
  intros HI. unfold add. destruct eid as [e|].
  - destruct (decide _) as [Hs|Hs]; [done|]. apply eq_None_not_Some in Hs.
    destruct (rxn_empty _) eqn:Hem; [done|]. cbn.
    apply register_Inv; [done..|apply norm_rule_ne].
  - destruct (next_id _ _) as [[c e]|] eqn:Hid; [|done].
    apply next_id_fresh in Hid.
    destruct (rxn_empty _) eqn:Hem; cbn; [by apply set_counters_Inv|].
    apply register_Inv; [by apply set_counters_Inv|done|done|apply norm_rule_ne].
Qed.

(** ** remove_rxn *)

(** the parts of the state no loop of remove_rxn touches *)
Definition same_unpruned (s s' : net) : Prop :=
  edges s' = edges s ∧ order s' = order s ∧ kept s' = kept s ∧ counters s' = counters s.

Lemma prune_orphan_unpruned x s : same_unpruned s (prune_orphan x s).
Proof. unfold prune_orphan. by destruct (decide _). Qed.

Lemma fold_unpruned (f : string → net → net) s0 (D : gset string) :
  (∀ x acc, same_unpruned acc (f x acc)) → same_unpruned s0 (set_fold f s0 D).
Proof.
  intros Hf. revert D. apply (set_fold_ind_L (λ acc (_ : gset string), same_unpruned s0 acc)).
  - done.
  - intros x X acc _ (?&?&?&?). destruct (Hf x acc) as (?&?&?&?).
    unfold same_unpruned. split_and!; congruence.
Qed.

(** the orphan test of [prune_orphan] *)
Definition orphaned (s : net) (x : string) : Prop :=
  default ∅ (s_in s !! x) = ∅ ∧ default ∅ (s_out s !! x) = ∅.

Lemma prune_orphan_in x s y : default ∅ (s_in (prune_orphan x s) !! y) = default ∅ (s_in s !! y).
Proof.
  unfold prune_orphan. destruct (decide _) as [[Hi Ho]|]; [|done]. by apply default_delete_empty.
Qed.
Lemma prune_orphan_out x s y : default ∅ (s_out (prune_orphan x s) !! y) = default ∅ (s_out s !! y).
Proof.
  unfold prune_orphan. destruct (decide _) as [[Hi Ho]|]; [|done]. by apply default_delete_empty.
Qed.
Lemma prune_orphan_elem_of x s y :
  y ∈ species (prune_orphan x s) ↔ y ∈ species s ∧ ¬ (y = x ∧ orphaned s x).
Proof.
  unfold prune_orphan, orphaned. destruct (decide _) as [Ho|Hno]; cbn; [|tauto].
  rewrite elem_of_difference, elem_of_singleton. tauto.
Qed.
Lemma prune_orphan_mol x s y m :
  mol (prune_orphan x s) !! y = Some m ↔ mol s !! y = Some m ∧ ¬ (y = x ∧ orphaned s x).
Proof.
  unfold prune_orphan, orphaned. destruct (decide _) as [Ho|Hno]; cbn; [|tauto].
  rewrite lookup_delete_Some. split.
  - intros [Hne Hy]. split; [done|]. intros [Heq _]. by apply Hne.
  - intros [Hy Hn]. split; [|done]. intros <-. by apply Hn.
Qed.

(** What the two loops of remove_rxn do to the indices, the species and the labels, in closed
    form: [s'] is [s] after the id [e] has been discarded from the out-index of the species in
    [Dout] and from the in-index of those in [Din], and each of these species has been pruned if
    that left it without reactions.  Pruning deletes only index entries that read ∅ anyway, so
    it does not show in the index clauses. *)
Definition pruned (e : string) (Dout Din : gset string) (s s' : net) : Prop :=
  (∀ y e', e' ∈ default ∅ (s_in s' !! y) ↔ e' ∈ default ∅ (s_in s !! y) ∧ (y ∈ Din → e' ≠ e)) ∧
  (∀ y e', e' ∈ default ∅ (s_out s' !! y) ↔ e' ∈ default ∅ (s_out s !! y) ∧ (y ∈ Dout → e' ≠ e)) ∧
  (∀ y, y ∈ species s' ↔ y ∈ species s ∧ ¬ (y ∈ Dout ∪ Din ∧ orphaned s' y)) ∧
  (∀ y m, mol s' !! y = Some m ↔ mol s !! y = Some m ∧ ¬ (y ∈ Dout ∪ Din ∧ orphaned s' y)).

Lemma pruned_refl e s : pruned e ∅ ∅ s s.
Proof.
  split_and!; intros; rewrite ?(left_id_L ∅ (∪)), elem_of_empty; tauto.
Qed.

Lemma pruned_orphaned e Dout Din s s' y : pruned e Dout Din s s' → orphaned s y → orphaned s' y.
Proof.
  intros (Hi & Ho & _) [H1 H2].
  split; apply elem_of_equiv_empty_L; intros e'; rewrite ?Hi, ?Ho, ?H1, ?H2, elem_of_empty; tauto.
Qed.

Lemma pruned_orphaned_inv e Dout Din s s' y :
  pruned e Dout Din s s' → y ∉ Dout ∪ Din → orphaned s' y → orphaned s y.
Proof.
  intros (Hi & Ho & _) [Hno Hni]%not_elem_of_union [H1 H2].
  split; apply elem_of_equiv_empty_L; intros e' He'.
  - apply (not_elem_of_empty (C:=gset string) e'). rewrite <- H1. apply Hi. tauto.
  - apply (not_elem_of_empty (C:=gset string) e'). rewrite <- H2. apply Ho. tauto.
Qed.

Lemma pruned_trans e Dout Din Dout' Din' s1 s2 s3 :
  pruned e Dout Din s1 s2 → pruned e Dout' Din' s2 s3 → pruned e (Dout' ∪ Dout) (Din' ∪ Din) s1 s3.
Proof.
  intros H12 H23.
  assert (Hgone : ∀ y, y ∈ Dout' ∪ Dout ∪ (Din' ∪ Din) ∧ orphaned s3 y ↔
                       y ∈ Dout ∪ Din ∧ orphaned s2 y ∨ y ∈ Dout' ∪ Din' ∧ orphaned s3 y).
  { intros y. split.
    - intros [Hy H3]. destruct (decide (y ∈ Dout' ∪ Din')) as [Hy'|Hy']; [by right|left].
      split; [clear -Hy Hy'; set_solver|by eapply pruned_orphaned_inv].
    - intros [[Hy H2]|[Hy H3]].
      + split; [clear -Hy; set_solver|by eapply pruned_orphaned].
      + split; [clear -Hy; set_solver|done]. }
  destruct H12 as (Hi & Ho & Hs & Hm), H23 as (Hi' & Ho' & Hs' & Hm'). split_and!.
  - intros y e'. rewrite Hi', Hi, elem_of_union. tauto.
  - intros y e'. rewrite Ho', Ho, elem_of_union. tauto.
  - intros y. rewrite Hgone, Hs', Hs. tauto.
  - intros y m. rewrite Hgone, Hm', Hm. tauto.
Qed.

(** pruning [x] in a state [t] that differs from [s] by discards at [x] only *)
Lemma prune_orphan_pruned e Dout Din x s t :
  (∀ y e', e' ∈ default ∅ (s_in t !! y) ↔ e' ∈ default ∅ (s_in s !! y) ∧ (y ∈ Din → e' ≠ e)) →
  (∀ y e', e' ∈ default ∅ (s_out t !! y) ↔ e' ∈ default ∅ (s_out s !! y) ∧ (y ∈ Dout → e' ≠ e)) →
  species t = species s → mol t = mol s → Dout ∪ Din = {[x]} →
  pruned e Dout Din s (prune_orphan x t).
Proof.
  intros Hin Hout Hsp Hmol HD.
  assert (Hgone : ∀ y, y ∈ Dout ∪ Din ∧ orphaned (prune_orphan x t) y ↔ y = x ∧ orphaned t x).
  { intros y. unfold orphaned. rewrite HD, elem_of_singleton, prune_orphan_in, prune_orphan_out.
    split; intros [-> ?]; done. }
  split_and!.
  - intros y e'. rewrite prune_orphan_in. apply Hin.
  - intros y e'. rewrite prune_orphan_out. apply Hout.
  - intros y. by rewrite Hgone, prune_orphan_elem_of, Hsp.
  - intros y m. by rewrite Hgone, prune_orphan_mol, Hmol.
Qed.

Lemma out_step_pruned e x s : pruned e {[x]} ∅ s (prune_orphan x (out_discard e x s)).
Proof.
  apply prune_orphan_pruned; [| |done|done|apply (right_id_L ∅ (∪))]; intros y e'; cbn.
  - rewrite elem_of_empty. tauto.
  - rewrite default_discard, elem_of_singleton.
    destruct (decide (y = x)) as [->|]; [rewrite elem_of_difference, elem_of_singleton|]; tauto.
Qed.
Lemma in_step_pruned e x s : pruned e ∅ {[x]} s (prune_orphan x (in_discard e x s)).
Proof.
  apply prune_orphan_pruned; [| |done|done|apply (left_id_L ∅ (∪))]; intros y e'; cbn.
  - rewrite default_discard, elem_of_singleton.
    destruct (decide (y = x)) as [->|]; [rewrite elem_of_difference, elem_of_singleton|]; tauto.
  - rewrite elem_of_empty. tauto.
Qed.

Lemma out_loop_pruned e s D :
  pruned e D ∅ s (set_fold (λ x acc, prune_orphan x (out_discard e x acc)) s D).
Proof.
  revert D. apply (set_fold_ind_L (λ acc X, pruned e X ∅ s acc)); [apply pruned_refl|].
  intros x X acc _ IH. pose proof (pruned_trans _ _ _ _ _ _ _ _ IH (out_step_pruned e x acc)) as H.
  by rewrite (left_id_L ∅ (∪)) in H.
Qed.
Lemma in_loop_pruned e s D :
  pruned e ∅ D s (set_fold (λ x acc, prune_orphan x (in_discard e x acc)) s D).
Proof.
  revert D. apply (set_fold_ind_L (λ acc X, pruned e ∅ X s acc)); [apply pruned_refl|].
  intros x X acc _ IH. pose proof (pruned_trans _ _ _ _ _ _ _ _ IH (in_step_pruned e x acc)) as H.
  by rewrite (left_id_L ∅ (∪)) in H.
Qed.

Lemma remove_rxn_pruned s e rx :
  edges s !! e = Some rx → pruned e (dom (r_lhs rx)) (dom (r_rhs rx)) s (remove_rxn s e).1.
Proof.
  intros He. unfold remove_rxn. rewrite He. cbn [fst].
  match goal with |- context [set_fold _ (set_fold _ ?s1 _) _] =>
    pose proof (pruned_trans _ _ _ _ _ _ _ _ (out_loop_pruned e s1 (dom (r_lhs rx)))
                             (in_loop_pruned e _ (dom (r_rhs rx)))) as H end.
  rewrite (left_id_L ∅ (∪)), (right_id_L ∅ (∪)) in H.
  (* [H] starts from the state after the pop; [pruned] reads none of the fields the pop changes *)
  exact H.
Qed.

Lemma remove_rxn_edges s e rx :
  edges s !! e = Some rx →
  (remove_rxn s e).2 = None ∧ edges (remove_rxn s e).1 = delete e (edges s) ∧
  order (remove_rxn s e).1 = filter (λ e', e' ≠ e) (order s) ∧
  kept (remove_rxn s e).1 = kept s ∧ counters (remove_rxn s e).1 = counters s.
Proof.
  intros He. unfold remove_rxn. rewrite He. cbn [fst snd]. split; [done|].
  match goal with |- context [set_fold ?f (set_fold ?g ?s1 ?D1) ?D2] =>
    destruct (fold_unpruned g s1 D1) as (HE1 & HO1 & HK1 & HC1);
      [|destruct (fold_unpruned f (set_fold g s1 D1) D2) as (HE2 & HO2 & HK2 & HC2)]
  end.
  - intros x acc. apply (prune_orphan_unpruned x (out_discard e x acc)).
  - intros x acc. apply (prune_orphan_unpruned x (in_discard e x acc)).
  - by rewrite HE2, HE1, HO2, HO1, HK2, HK1, HC2, HC1.
Qed.

Lemma indexed_discard sd m m' E e rx :
  indexed sd m E → E !! e = Some rx →
  (∀ y e', e' ∈ default ∅ (m' !! y) ↔ e' ∈ default ∅ (m !! y) ∧ (y ∈ dom (sd rx) → e' ≠ e)) →
  indexed sd m' (delete e E).
Proof.
  intros Hm He Hm' y e'. rewrite Hm', (Hm y e'). setoid_rewrite lookup_delete_Some. split.
  - intros [(rx' & He' & Hy) Hne]. exists rx'. split; [|done]. split; [|done].
    intros ->. apply Hne; [|done]. by simplify_eq.
  - intros (rx' & [Hne He'] & Hy). split; [eauto|]. by intros _ ->.
Qed.

(** under exact indices, a species occurs in a stored reaction iff the orphan test fails *)
Lemma occurs_not_orphaned s x :
  indexed r_rhs (s_in s) (edges s) → indexed r_lhs (s_out s) (edges s) →
  occurs (edges s) x ↔ ¬ orphaned s x.
Proof.
  intros Hin Hout. split.
  - intros (e & rx & He & [Hx|Hx]%elem_of_union) [Hi Ho].
    + apply (not_elem_of_empty (C:=gset string) e). rewrite <- Ho. apply Hout. eauto.
    + apply (not_elem_of_empty (C:=gset string) e). rewrite <- Hi. apply Hin. eauto.
  - intros [Hi|Ho]%not_and_l.
    + apply set_choose_L in Hi as [e (rx & He & Hx)%Hin]. exists e, rx. split; [done|]. by apply elem_of_union_r.
    + apply set_choose_L in Ho as [e (rx & He & Hx)%Hout]. exists e, rx. split; [done|]. by apply elem_of_union_l.
Qed.

Lemma remove_rxn_Inv s e : Inv s → Inv (remove_rxn s e).1.
Proof.
  intros HI. destruct (edges s !! e) as [rx|] eqn:He; [|unfold remove_rxn; by rewrite He].
  destruct (remove_rxn_edges s e rx He) as (_ & HE & HO & HK & _).
  destruct (remove_rxn_pruned s e rx He) as (Hi & Ho & Hs & Hm).
  set (s' := (remove_rxn s e).1) in *.
  assert (Hin : indexed r_rhs (s_in s') (edges s')).
  { rewrite HE. eapply indexed_discard; [apply indexed_producers, HI|done..]. }
  assert (Hout : indexed r_lhs (s_out s') (edges s')).
  { rewrite HE. eapply indexed_discard; [apply indexed_consumers, HI|done..]. }
  assert (Hocc : ∀ y, occurs (edges s') y → occurs (edges s) y).
  { intros y (e' & rx' & He' & Hy). rewrite HE in He'. apply lookup_delete_Some in He' as [_ He']. by exists e', rx'. }
  split.
  - by apply indexed_producers.
  - by apply indexed_consumers.
  - intros y Hy. apply Hs. split; [by apply (inv_occ _ HI), Hocc|].
    intros [_ Hor]. by apply (occurs_not_orphaned s' y) in Hy.
  - intros y [Hy Hng]%Hs. rewrite HK. destruct (inv_sp _ HI y Hy) as [(e' & rx' & He' & Hy')|?]; [left|by right].
    destruct (decide (e' = e)) as [->|Hne].
    + apply occurs_not_orphaned; [done..|]. intros Hor. apply Hng. split; [|done]. by simplify_eq.
    + exists e', rx'. by rewrite HE, lookup_delete_ne.
  - intros y [m [Hy Hng]%Hm]%elem_of_dom. apply Hs. split; [|done]. apply (inv_mol _ HI), elem_of_dom. eauto.
  - rewrite HO. apply NoDup_filter, HI.
  - intros e'. rewrite HO, HE, elem_of_list_filter, (inv_order _ HI), lookup_delete_is_Some. split; intros [? ?]; done.
  - intros e' rx'. rewrite HE. intros [_ ?]%lookup_delete_Some. by eapply (inv_nonempty _ HI).
  - intros e' rx'. rewrite HE. intros [_ ?]%lookup_delete_Some. by eapply (inv_rule _ HI).
Qed.

(** ** molecule labels *)

Lemma assign_mol_Inv s x m : Inv s → Inv (assign_mol s x m).1.
Proof.
  intros HI. unfold assign_mol. destruct (decide _) as [Hx|Hx]; [|done].
  destruct HI as [? ? ? ? Hm ? ? ? ?]. split; try done. cbn. rewrite dom_insert_L.
  apply union_subseteq. split; [by apply singleton_subseteq_l|done].
Qed.

Lemma set_mol_fold_dom (S : gset string) mp (m0 : gmap string string) :
  dom m0 ⊆ S →
  dom (foldl (λ acc p, if decide (p.1 ∈ S) then <[ p.1 := p.2 ]> acc else acc) m0 mp) ⊆ S.
Proof.
  revert m0. induction mp as [|p mp IH]; intros m0 H0; cbn; [done|].
  apply IH. destruct (decide _); [|done]. rewrite dom_insert_L.
  apply union_subseteq. split; [by apply singleton_subseteq_l|done].
Qed.

Lemma set_mol_map_Inv s mp strict clear : Inv s → Inv (set_mol_map s mp strict clear).1.
Proof.
  intros HI. unfold set_mol_map. destruct (_ && _); [done|].
  destruct HI as [? ? ? ? Hm ? ? ? ?]. split; try done. cbn.
  apply set_mol_fold_dom. destruct clear; [|done]. rewrite dom_empty_L. apply empty_subseteq.
Qed.

(** ** remove_species *)

Definition strip (x : string) (rx : rxn) : rxn :=
  Rxn (r_rule rx) (delete x (r_lhs rx)) (delete x (r_rhs rx)).
(** the abstract effect on one stored reaction: [x] is deleted from both sides,
    every other coefficient is untouched; the reaction is dropped if nothing is left *)
Definition strip_keep (x : string) (rx : rxn) : option rxn :=
  if rxn_empty (strip x rx) then None else Some (strip x rx).

Lemma lookup_strip (E : gmap string rxn) x e rx' :
  omap (strip_keep x) E !! e = Some rx' ↔
  ∃ rx, E !! e = Some rx ∧ rx' = strip x rx ∧ rxn_empty (strip x rx) = false.
Proof.
  rewrite lookup_omap_Some. unfold strip_keep. split.
  - intros (rx & Hk & He). exists rx. destruct (rxn_empty _); by simplify_eq.
  - intros (rx & He & -> & Hem). exists rx. by rewrite Hem.
Qed.

Lemma dom_strip x rx :
  dom (r_lhs (strip x rx)) = dom (r_lhs rx) ∖ {[x]} ∧ dom (r_rhs (strip x rx)) = dom (r_rhs rx) ∖ {[x]}.
Proof. unfold side. split; apply dom_delete_L. Qed.

Lemma rxn_species_strip x rx : rxn_species (strip x rx) = rxn_species rx ∖ {[x]}.
Proof.
  unfold rxn_species. destruct (dom_strip x rx) as [-> ->]. symmetry. apply difference_union_distr_l_L.
Qed.

Lemma strip_nonempty x y rx : y ≠ x → y ∈ rxn_species rx → rxn_empty (strip x rx) = false.
Proof.
  intros Hne Hy. apply rxn_empty_false. rewrite rxn_species_strip.
  apply (non_empty_inhabited_L y), elem_of_difference. split; [done|]. by intros ?%elem_of_singleton.
Qed.

Lemma strip_empty_occ x rx :
  rxn_empty rx = false → rxn_empty (strip x rx) = true → x ∈ rxn_species rx.
Proof.
  intros [y Hy]%rxn_empty_false%set_choose_L Hem.
  destruct (decide (y = x)) as [->|Hd]; [done|]. by rewrite (strip_nonempty x y rx) in Hem.
Qed.

Lemma strip_absent x rx : x ∉ rxn_species rx → strip x rx = rx.
Proof.
  intros [Hl Hr]%not_elem_of_union. unfold strip. destruct rx as [ru l r]. cbn in *. unfold side in *.
  by rewrite !delete_notin by (by apply not_elem_of_dom).
Qed.

Lemma indexed_strip sd m m' E x :
  (∀ rx, dom (sd (strip x rx)) = dom (sd rx) ∖ {[x]}) → (∀ rx, dom (sd rx) ⊆ rxn_species rx) →
  indexed sd m E →
  (∀ y, default ∅ (m' !! y) = if decide (y = x) then ∅ else default ∅ (m !! y)) →
  indexed sd m' (omap (strip_keep x) E).
Proof.
  intros Hsd Hsub Hm Hm' y e. rewrite Hm'. setoid_rewrite lookup_strip. split.
  - destruct (decide (y = x)) as [->|Hne]; [by intros ?%elem_of_empty|].
    intros (rx & He & Hy)%Hm. exists (strip x rx). split.
    + exists rx. split_and!; [done..|]. apply (strip_nonempty x y); [done|]. by apply Hsub.
    + rewrite Hsd. apply elem_of_difference. split; [done|]. by intros ?%elem_of_singleton.
  - intros (rx' & (rx & He & -> & _) & Hy). rewrite Hsd in Hy. apply elem_of_difference in Hy as [Hy Hne].
    rewrite decide_False by (by intros ->; apply Hne, elem_of_singleton). apply Hm. eauto.
Qed.

Lemma occurs_strip E x y : occurs (omap (strip_keep x) E) y ↔ y ≠ x ∧ occurs E y.
Proof.
  unfold occurs. setoid_rewrite lookup_strip. split.
  - intros (e & rx' & (rx & He & -> & _) & Hy). rewrite rxn_species_strip in Hy. apply elem_of_difference in Hy as [Hy Hne].
    split; [by intros ->; apply Hne, elem_of_singleton|eauto].
  - intros (Hne & e & rx & He & Hy). exists e, (strip x rx). split.
    + exists rx. split_and!; [done..|]. by apply (strip_nonempty x y).
    + rewrite rxn_species_strip. apply elem_of_difference. split; [done|]. by intros ?%elem_of_singleton.
Qed.

(** the invariant after the strip: [x] either stays, and then counts as kept, or goes together
    with its index entries and its label *)
Lemma strip_Inv s x (prune : bool) O C :
  Inv s → NoDup O → (∀ e, e ∈ O ↔ is_Some (omap (strip_keep x) (edges s) !! e)) →
  Inv (Net (if prune then species s ∖ {[x]} else species s) (omap (strip_keep x) (edges s)) O
           (if prune then delete x (alter (λ _, ∅) x (s_in s)) else alter (λ _, ∅) x (s_in s))
           (if prune then delete x (alter (λ _, ∅) x (s_out s)) else alter (λ _, ∅) x (s_out s))
           C (if prune then delete x (mol s) else mol s) (if prune then kept s else kept s ∪ {[x]})).
Proof.
  intros HI Hnd Hord. pose proof (inv_mol _ HI) as Hmol. split; cbn; try done.
  - apply indexed_producers.
    eapply indexed_strip; [intros rx; apply dom_strip|intros rx; apply union_subseteq_r|apply indexed_producers, HI|].
    destruct prune; [apply default_delete_alter_empty|apply default_alter_empty].
  - apply indexed_consumers.
    eapply indexed_strip; [intros rx; apply dom_strip|intros rx; apply union_subseteq_l|apply indexed_consumers, HI|].
    destruct prune; [apply default_delete_alter_empty|apply default_alter_empty].
  - intros y [Hne Hy]%occurs_strip. apply (inv_occ _ HI) in Hy. destruct prune; [|done].
    apply elem_of_difference. split; [done|by intros ?%elem_of_singleton].
  - intros y Hy. destruct (decide (y = x)) as [->|Hne].
    + destruct prune; [|right; by apply elem_of_union_r, elem_of_singleton].
      apply elem_of_difference in Hy as [_ []]. by apply elem_of_singleton.
    + assert (Hys : y ∈ species s) by (destruct prune; [by apply elem_of_difference in Hy as [? _]|done]).
      destruct (inv_sp _ HI y Hys) as [?|?]; [left; by apply occurs_strip|right].
      destruct prune; [done|by apply elem_of_union_l].
  - destruct prune; [|done]. rewrite dom_delete_L. by apply difference_mono_r.
  - intros e rx' (rx & He & -> & Hem)%lookup_strip. done.
  - intros e rx' (rx & He & -> & Hem)%lookup_strip. cbn. by eapply (inv_rule _ HI).
Qed.

(** remove_species with its two large intermediate values named: the ids of the reactions the
    strip empties, and the edge map without them *)
Definition dead_edges (s : net) (x : string) : gset string :=
  let ins := default ∅ (s_in s !! x) in
  let outs := default ∅ (s_out s !! x) in
  dom (filter (λ p, p.1 ∈ ins ∪ outs ∧ rxn_empty p.2 = true)
              (map_imap (λ e rx, Some (strip_rxn x ins outs e rx)) (edges s))).
Definition stripped_edges (s : net) (x : string) : gmap string rxn :=
  let ins := default ∅ (s_in s !! x) in
  let outs := default ∅ (s_out s !! x) in
  filter (λ p, p.1 ∉ dead_edges s x) (map_imap (λ e rx, Some (strip_rxn x ins outs e rx)) (edges s)).

Lemma remove_species_unfold s x prune :
  remove_species s x prune =
  if decide (x ∈ species s) then
    if decide (default ∅ (s_in s !! x) ∪ default ∅ (s_out s !! x) ⊆ dom (edges s)) then
      let s1 := Net (species s) (stripped_edges s x) (filter (λ e', e' ∉ dead_edges s x) (order s))
                    (alter (λ _, ∅) x (s_in s)) (alter (λ _, ∅) x (s_out s))
                    (counters s) (mol s) (if prune then kept s else kept s ∪ {[x]}) in
      (if prune then prune_orphan x s1 else s1, None)
    else (s, Some InternalError)
  else (s, Some KeyError).
Proof. done. Qed.

Lemma stripped_edges_spec s x :
  Inv s →
  stripped_edges s x = omap (strip_keep x) (edges s) ∧
  ∀ e, e ∈ filter (λ e', e' ∉ dead_edges s x) (order s) ↔ is_Some (omap (strip_keep x) (edges s) !! e).
Proof.
  intros HI. unfold stripped_edges, dead_edges.
  set (E1 := map_imap _ (edges s)). set (dead := dom (filter _ E1)).
  assert (HE1 : ∀ e, E1 !! e = strip x <$> edges s !! e).
  { intros e. unfold E1. rewrite map_lookup_imap. destruct (edges s !! e) as [rx|] eqn:He; cbn; [|done].
    f_equal. unfold strip_rxn, strip. rewrite (inv_in _ HI), (inv_out _ HI). f_equal.
    - destruct (decide _) as [|Hn]; [done|]. unfold side in *. rewrite delete_notin; [done|].
      apply not_elem_of_dom. intros Hx. apply Hn, elem_of_consumers. eauto.
    - destruct (decide _) as [|Hn]; [done|]. unfold side in *. rewrite delete_notin; [done|].
      apply not_elem_of_dom. intros Hx. apply Hn, elem_of_producers. eauto. }
  assert (Hdead : ∀ e, e ∈ dead ↔ ∃ rx, edges s !! e = Some rx ∧ rxn_empty (strip x rx) = true).
  { intros e. unfold dead. rewrite elem_of_dom. unfold is_Some.
    setoid_rewrite map_filter_lookup_Some. cbn. setoid_rewrite HE1. split.
    - intros (rx' & Hl & _ & Hem). destruct (edges s !! e) as [rx|] eqn:He; simplify_eq/=. eauto.
    - intros (rx & He & Hem). exists (strip x rx). rewrite He. split; [done|]. split; [|done].
      rewrite (inv_in _ HI), (inv_out _ HI), elem_of_union, elem_of_producers, elem_of_consumers.
      apply strip_empty_occ in Hem as [?|?]%elem_of_union; [eauto..|]. by eapply (inv_nonempty _ HI). }
  assert (Hkeep : ∀ e rx', strip x <$> edges s !! e = Some rx' ∧ e ∉ dead ↔
                           omap (strip_keep x) (edges s) !! e = Some rx').
  { intros e rx'. rewrite lookup_strip, Hdead. split.
    - intros [Hl Hnd]. destruct (edges s !! e) as [rx|]; simplify_eq/=. exists rx.
      split_and!; [done..|]. destruct (rxn_empty (strip x rx)) eqn:Hem; [|done]. destruct Hnd. eauto.
    - intros (rx & He & -> & Hem). rewrite He. split; [done|]. intros (rx2 & ? & ?). simplify_eq. congruence. }
  split.
  - apply map_eq. intros e. apply option_eq. intros rx'. by rewrite map_filter_lookup_Some, HE1, <- Hkeep.
  - intros e. rewrite elem_of_list_filter, (inv_order _ HI). unfold is_Some. setoid_rewrite <- Hkeep. split.
    + intros [Hnd [rx He]]. exists (strip x rx). by rewrite He.
    + intros (rx' & Hl & Hnd). split; [done|]. destruct (edges s !! e); [eauto|done].
Qed.

(** apart from edges and order: the orphan test after the strip always succeeds *)
Lemma remove_species_shape s x prune s' :
  remove_species s x prune = (s', None) →
  x ∈ species s ∧ ∃ E O,
    s' = Net (if prune then species s ∖ {[x]} else species s) E O
             (if prune then delete x (alter (λ _, ∅) x (s_in s)) else alter (λ _, ∅) x (s_in s))
             (if prune then delete x (alter (λ _, ∅) x (s_out s)) else alter (λ _, ∅) x (s_out s))
             (counters s) (if prune then delete x (mol s) else mol s)
             (if prune then kept s else kept s ∪ {[x]}).
Proof.
  rewrite remove_species_unfold. destruct (decide (x ∈ species s)) as [Hx|]; [|done].
  destruct (decide _); [|done]. intros [= <-]. split; [done|]. eexists _, _.
  destruct prune; [|done]. unfold prune_orphan. cbn [s_in s_out].
  by rewrite decide_True by (by rewrite !default_alter_empty, !decide_True).
Qed.

Lemma remove_species_present s x prune :
  Inv s → x ∈ species s →
  let s' := (remove_species s x prune).1 in
  (remove_species s x prune).2 = None ∧ Inv s' ∧ edges s' = omap (strip_keep x) (edges s).
Proof.
  intros HI Hx. destruct (stripped_edges_spec s x HI) as [HE Hord].
  rewrite remove_species_unfold, decide_True by done.
  rewrite decide_True; cycle 1.
  { intros e [H|H]%elem_of_union; apply elem_of_dom.
    - rewrite (inv_in _ HI) in H. apply elem_of_producers in H as (?&?&?). eauto.
    - rewrite (inv_out _ HI) in H. apply elem_of_consumers in H as (?&?&?). eauto. }
  cbv zeta. rewrite HE. cbn [fst snd]. split; [done|].
  assert (Hnd : NoDup (filter (λ e', e' ∉ dead_edges s x) (order s))) by apply NoDup_filter, HI.
  destruct prune.
  - unfold prune_orphan. cbn [s_in s_out]. rewrite decide_True by (by rewrite !default_alter_empty, !decide_True).
    split; [|done]. by apply (strip_Inv s x true).
  - split; [|done]. by apply (strip_Inv s x false).
Qed.

Lemma remove_species_Inv s x prune : Inv s → Inv (remove_species s x prune).1.
Proof.
  intros HI. destruct (decide (x ∈ species s)) as [Hx|Hx].
  - by apply remove_species_present.
  - unfold remove_species. by rewrite decide_False.
Qed.

(** ** merge *)

(** the body of the loops of merge and merge_raw: one reaction, given by its sides, goes in
    under its own id [eid] unless that is missing or taken or prefix_edges asks for a generated one *)
Definition merge_add (prefix : bool) (s : net) (eid : option string) (rule : string) (l r : side)
  : net * option err :=
  if prefix || match eid with None => true | Some e => bool_decide (is_Some (edges s !! e)) end then
    match next_id s rule with
    | None => (s, Some InternalError)
    | Some (c, e') =>
        let '(s2, er, _) := add (set_counters s (<[ rule := c ]> (counters s))) l r rule (Some e') in (s2, er)
    end
  else let '(s2, er, _) := add s l r rule eid in (s2, er).

Lemma merge_one_add prefix s e rx :
  merge_one prefix (s, None) e rx = merge_add prefix s (Some e) (r_rule rx) (r_lhs rx) (r_rhs rx).
Proof. done. Qed.

(** what set_counters and add preserve, merge preserves *)
Lemma merge_add_ind (P : net → Prop) :
  (∀ s c, P s → P (set_counters s c)) → (∀ s l r rule eid, P s → P (add s l r rule eid).1.1) →
  ∀ prefix s eid rule l r, P s → P (merge_add prefix s eid rule l r).1.
Proof.
  intros Hc Ha prefix s eid rule l r HP. unfold merge_add. destruct (prefix || _).
  - destruct (next_id _ _) as [[c e']|]; [|done].
    specialize (Ha _ l r rule (Some e') (Hc s (<[rule:=c]> (counters s)) HP)).
    by destruct (add _ _ _ _ _) as [[s2 er] ?].
  - specialize (Ha s l r rule eid HP). by destruct (add _ _ _ _ _) as [[s2 er] ?].
Qed.

Lemma merge_ind (P : net → Prop) :
  (∀ s c, P s → P (set_counters s c)) → (∀ s l r rule eid, P s → P (add s l r rule eid).1.1) →
  ∀ s o prefix, P s → P (merge s o prefix).1.
Proof.
  intros Hc Ha s o prefix HP. unfold merge.
  assert (H : P (s, @None err).1) by done. revert H. generalize (s, @None err).
  induction (edge_seq o) as [|p l IH]; intros [s0 [er|]] H; cbn [foldl]; [done|done|by apply IH|].
  apply IH. rewrite merge_one_add. by apply merge_add_ind.
Qed.

Lemma merge_Inv s o prefix : Inv s → Inv (merge s o prefix).1.
Proof. apply merge_ind; [apply set_counters_Inv|intros; by apply add_Inv]. Qed.

(** * 4. Worlds *)

Lemma getn_Inv w i : Forall Inv w → Inv (getn w i).
Proof.
  intros H. unfold getn. rewrite nth_lookup. destruct (w !! i) eqn:E; cbn.
  - by eapply Forall_lookup_1.
  - apply Inv_init.
Qed.

Lemma init_world_Inv n : Forall Inv (init_world n).
Proof. apply Forall_replicate, Inv_init. Qed.

(** an operation changes at most the network it targets *)
Definition target (o : op) : nat :=
  match o with
  | OAdd i _ _ _ _ | ORemoveRxn i _ | ORemoveSpecies i _ _ | OMerge i _ _
  | OAssignMol i _ _ | OSetMolMap i _ _ _ => i
  | OCopy _ j => j
  end.

(** [step_net w o] is the new value of the network [target o], with the error code ([step_setn]) *)
Definition step_net (w : world) (o : op) : net * option err :=
  match o with
  | OAdd i l r rule eid => ((add (getn w i) (normalize l) (normalize r) rule eid).1.1,
                            (add (getn w i) (normalize l) (normalize r) rule eid).1.2)
  | ORemoveRxn i e => remove_rxn (getn w i) e
  | ORemoveSpecies i x p => remove_species (getn w i) x p
  | OMerge i j p => merge (getn w i) (getn w j) p
  | OCopy i j => (getn w i, None)
  | OAssignMol i x m => assign_mol (getn w i) x m
  | OSetMolMap i mp st cl => set_mol_map (getn w i) mp st cl
  end.

Lemma step_setn w o : step w o = (setn w (target o) (step_net w o).1, (step_net w o).2).
Proof.
  destruct o; cbn [step step_net target]; try done.
  - by destruct (add _ _ _ _ _) as [[? ?] ?].
  - by destruct (remove_rxn _ _).
  - by destruct (remove_species _ _ _).
  - by destruct (merge _ _ _).
  - by destruct (assign_mol _ _ _).
  - by destruct (set_mol_map _ _ _ _).
Qed.

Lemma step_net_Inv w o : Forall Inv w → Inv (step_net w o).1.
Proof.
  intros Hw. destruct o; cbn [step_net fst].
  - by apply add_Inv, getn_Inv.
  - by apply remove_rxn_Inv, getn_Inv.
  - by apply remove_species_Inv, getn_Inv.
  - by apply merge_Inv, getn_Inv.
  - by apply getn_Inv.
  - by apply assign_mol_Inv, getn_Inv.
  - by apply set_mol_map_Inv, getn_Inv.
Qed.

Lemma step_Inv w o : Forall Inv w → Forall Inv (step w o).1.
Proof. intros Hw. rewrite step_setn. apply Forall_insert; [done|by apply step_net_Inv]. Qed.

Lemma run_Inv ops : ∀ w, Forall Inv w → Forall Inv (fold_left (λ w o, (step w o).1) ops w).
Proof. induction ops as [|o ops IH]; intros w Hw; cbn; [done|]. by apply IH, step_Inv. Qed.

Lemma reachable_Inv n ops : Forall Inv (fold_left (λ w o, (step w o).1) ops (init_world n)).
Proof. apply run_Inv, init_world_Inv. Qed.

Lemma getn_setn_ne w i k s : k ≠ i → getn (setn w i s) k = getn w k.
Proof. intros Hne. unfold getn, setn, world in *. rewrite !nth_lookup, list_lookup_insert_ne; done. Qed.

Lemma step_frame w o k : k ≠ target o → getn (step w o).1 k = getn w k.
Proof. intros Hk. rewrite step_setn. by apply getn_setn_ne. Qed.

Lemma step_length w o : length (step w o).1 = length w.
Proof. rewrite step_setn. apply insert_length. Qed.

(** the invariant written out (so that the statement in props/C15.v does not hide behind the record) *)
Lemma Inv_unfold s :
  Inv s ↔
  (∀ x e, e ∈ default ∅ (s_in s !! x) ↔ ∃ rx, edges s !! e = Some rx ∧ x ∈ dom (r_rhs rx)) ∧
  (∀ x e, e ∈ default ∅ (s_out s !! x) ↔ ∃ rx, edges s !! e = Some rx ∧ x ∈ dom (r_lhs rx)) ∧
  (∀ x, x ∈ species s ↔ (∃ e rx, edges s !! e = Some rx ∧ x ∈ rxn_species rx) ∨ (x ∈ kept s ∧ x ∈ species s)) ∧
  dom (mol s) ⊆ species s ∧
  NoDup (order s) ∧ (∀ e, e ∈ order s ↔ is_Some (edges s !! e)) ∧
  (∀ e rx, edges s !! e = Some rx → rxn_empty rx = false ∧ r_rule rx ≠ "").
Proof.
  split.
  - intros HI. split_and!; try apply HI.
    + apply indexed_producers, HI.
    + apply indexed_consumers, HI.
    + intros x. split.
      * intros Hx. destruct (inv_sp _ HI x Hx); auto.
      * intros [H|[_ ?]]; [by apply (inv_occ _ HI)|done].
    + intros e rx He. split; [by eapply (inv_nonempty _ HI)|by eapply (inv_rule _ HI)].
  - intros (Hi & Ho & Hs & Hm & Hnd & Hord & Hne). split; try done.
    + by apply indexed_producers.
    + by apply indexed_consumers.
    + intros x Hx. apply Hs. by left.
    + intros x Hx. apply Hs in Hx as [?|[? _]]; auto.
    + intros e rx He. by apply (Hne e rx).
    + intros e rx He. by apply (Hne e rx).
Qed.

(** * 5. Id generation *)

Global Instance gen_id_inj rule : Inj (=) (=) (gen_id rule).
Proof.
  intros k1 k2 H. unfold gen_id in H.
  apply (inj (String.append rule)) in H. apply (inj (String.append "_")) in H.
  by apply (inj pretty) in H.
Qed.

(** if the bounded search gives up, it has seen [fuel] distinct keys *)
Lemma fresh_None fuel rule cnt (E : gmap string rxn) :
  fresh fuel rule cnt E = None →
  ∃ D : gset string, D ⊆ dom E ∧ size D = fuel ∧ ∀ d, d ∈ D → ∃ k, (cnt < k)%N ∧ d = gen_id rule k.
Proof.
  revert cnt. induction fuel as [|f IH]; intros cnt; cbn.
  - intros _. exists ∅. split_and!; [apply empty_subseteq|apply size_empty|by intros d ?%elem_of_empty].
  - destruct (decide _) as [Hs|Hs]; [|done]. intros (D & HD & Hsz & Hk)%IH.
    exists ({[gen_id rule (cnt + 1)]} ∪ D). split_and!.
    + apply elem_of_dom in Hs. apply union_subseteq. split; [by apply singleton_subseteq_l|done].
    + rewrite size_union, size_singleton; [lia|].
      intros d ->%elem_of_singleton (k & Hlt & Heq)%Hk. apply (inj _) in Heq. lia.
    + intros d [->%elem_of_singleton|(k & ? & ?)%Hk]%elem_of_union.
      * exists (cnt + 1)%N. split; [lia|done].
      * exists k. split; [lia|done].
Qed.

Lemma next_id_total s rule : next_id s rule ≠ None.
Proof.
  unfold next_id. intros (D & HD & Hsz & _)%fresh_None.
  apply subseteq_size in HD. rewrite size_dom in HD. lia.
Qed.

(** * 6. Refinement to the abstract store  id ↦ reaction *)

Lemma add_spec s l r rule eid s' er e :
  add s l r rule eid = (s', er, e) →
  (∀ e0, eid = Some e0 → e = e0) ∧
  match er with
  | None => edges s !! e = None ∧ rxn_empty (Rxn (norm_rule rule) l r) = false ∧
            edges s' = <[e := Rxn (norm_rule rule) l r]> (edges s) ∧ order s' = (order s ++ [e])%list
  | Some er' => edges s' = edges s ∧ order s' = order s ∧
            (er' = KeyError ↔ ∃ e0, eid = Some e0 ∧ is_Some (edges s !! e0)) ∧
            (er' = InternalError ↔ eid = None ∧ next_id s (norm_rule rule) = None)
  end.
Proof.
  unfold add. destruct eid as [e0|].
  - destruct (decide _) as [Hs|Hs].
    { intros [= <- <- <-]. split; [by intros ? [= ->]|]. split_and!; try done.
      - split; [eauto|done].
      - split; [done|by intros [? _]]. }
    apply eq_None_not_Some in Hs.
    destruct (rxn_empty _) eqn:Hem; intros [= <- <- <-]; (split; [by intros ? [= ->]|]).
    + split_and!; try done.
      * split; [done|]. intros (? & [= <-] & [? ?]). congruence.
      * split; [done|by intros [? _]].
    + done.
  - destruct (next_id _ _) as [[c e1]|] eqn:Hid.
    + apply next_id_fresh in Hid.
      destruct (rxn_empty _) eqn:Hem; intros [= <- <- <-]; (split; [done|]).
      * split_and!; try done.
        -- split; [done|]. by intros (? & ? & ?).
        -- split; [done|]. by intros [_ ?].
      * done.
    + intros [= <- <- <-]. split; [done|]. split_and!; try done. split; [done|]. by intros (? & ? & ?).
Qed.

Lemma remove_rxn_spec s e s' er :
  remove_rxn s e = (s', er) →
  (er = None ∧ is_Some (edges s !! e) ∧ edges s' = delete e (edges s) ∧
   order s' = filter (λ e', e' ≠ e) (order s)) ∨
  (er = Some KeyError ∧ edges s !! e = None ∧ s' = s).
Proof.
  intros Hr. destruct (edges s !! e) as [rx|] eqn:He.
  - left. destruct (remove_rxn_edges s e rx He) as (Her & HE & HO & _).
    rewrite Hr in Her, HE, HO. split_and!; [done|eauto|done..].
  - right. unfold remove_rxn in Hr. rewrite He in Hr. by injection Hr as <- <-.
Qed.

Lemma remove_species_spec s x prune s' er :
  Inv s → remove_species s x prune = (s', er) →
  (er = None ∧ x ∈ species s ∧ edges s' = omap (strip_keep x) (edges s)) ∨
  (er = Some KeyError ∧ x ∉ species s ∧ s' = s).
Proof.
  intros HI Heq. destruct (decide (x ∈ species s)) as [Hx|Hx].
  - left. destruct (remove_species_present s x prune HI Hx) as (H1 & _ & H3).
    rewrite Heq in H1, H3. done.
  - right. unfold remove_species in Heq. rewrite decide_False in Heq by done. by simplify_eq.
Qed.

Lemma remove_species_no_internal_error s x prune :
  Inv s → (remove_species s x prune).2 ≠ Some InternalError.
Proof.
  intros HI. destruct (remove_species s x prune) as [s' er] eqn:Heq.
  destruct (remove_species_spec _ _ _ _ _ HI Heq) as [(-> & _)|(-> & _)]; done.
Qed.

(** every other species keeps its coefficients in every reaction *)
Lemma remove_species_others s x prune s' e rx y :
  Inv s → remove_species s x prune = (s', None) → edges s !! e = Some rx → y ≠ x →
  y ∈ rxn_species rx →
  ∃ rx', edges s' !! e = Some rx' ∧ r_rule rx' = r_rule rx ∧
         (∀ z, z ≠ x → r_lhs rx' !! z = r_lhs rx !! z ∧ r_rhs rx' !! z = r_rhs rx !! z) ∧
         r_lhs rx' !! x = None ∧ r_rhs rx' !! x = None.
Proof.
  intros HI Heq He Hne Hy.
  destruct (remove_species_spec _ _ _ _ _ HI Heq) as [(_ & _ & ->)|(? & _)]; [|done].
  exists (strip x rx). split_and!.
  - apply lookup_strip. exists rx. split_and!; [done..|].
    by apply (strip_nonempty x y).
  - done.
  - intros z Hz. cbn. unfold side in *. by rewrite !lookup_delete_ne.
  - cbn. unfold side in *. apply lookup_delete.
  - cbn. unfold side in *. apply lookup_delete.
Qed.

(** a failing call leaves the network as it was *)
Lemma remove_rxn_err_same s e s' er : remove_rxn s e = (s', Some er) → s' = s.
Proof. unfold remove_rxn. destruct (edges s !! e); [done|by intros [= <- _]]. Qed.
Lemma remove_species_err_same s x p s' er : remove_species s x p = (s', Some er) → s' = s.
Proof.
  rewrite remove_species_unfold. destruct (decide _); [|by intros [= <- _]]. by destruct (decide _); [|intros [= <- _]].
Qed.
Lemma assign_mol_err_same s x m s' er : assign_mol s x m = (s', Some er) → s' = s.
Proof. unfold assign_mol. destruct (decide _); [done|by intros [= <- _]]. Qed.
Lemma set_mol_map_err_same s mp st cl s' er : set_mol_map s mp st cl = (s', Some er) → s' = s.
Proof. unfold set_mol_map. destruct (_ && _); [by intros [= <- _]|done]. Qed.

(** * 7. Incidence = products − reactants *)

Lemma incidence_spec s x e v :
  (x, e, v) ∈ incidence s ↔
  ∃ rx, edges s !! e = Some rx ∧ x ∈ rxn_species rx ∧ v = (coef (r_rhs rx) x - coef (r_lhs rx) x)%Z.
Proof.
  unfold incidence. rewrite elem_of_list_bind. split.
  - intros ([e' rx] & Hin & Hm). apply elem_of_map_to_list in Hm.
    apply elem_of_list_fmap in Hin as (y & [= -> -> ->] & Hy%elem_of_elements). eauto.
  - intros (rx & He & Hx & ->). exists (e, rx). split; [|by apply elem_of_map_to_list].
    apply elem_of_list_fmap. exists x. split; [done|]. by apply elem_of_elements.
Qed.

(** at most one entry per (species, reaction) *)
Lemma incidence_functional s x e v1 v2 :
  (x, e, v1) ∈ incidence s → (x, e, v2) ∈ incidence s → v1 = v2.
Proof.
  intros (rx1 & H1 & _ & ->)%incidence_spec (rx2 & H2 & _ & ->)%incidence_spec. by simplify_eq.
Qed.

(** * 8. Merge: what it stores *)

Lemma rxn_eta rx : Rxn (r_rule rx) (r_lhs rx) (r_rhs rx) = rx.
Proof. by destruct rx. Qed.
Lemma norm_rule_id rule : rule ≠ "" → norm_rule rule = rule.
Proof. intros H. unfold norm_rule. by rewrite decide_False. Qed.

Lemma add_explicit_cases s l r rule e :
  edges s !! e = None →
  add s l r rule (Some e) =
  if rxn_empty (Rxn (norm_rule rule) l r) then (s, Some ValueError, e)
  else (register s e (Rxn (norm_rule rule) l r), None, e).
Proof. intros Hn. unfold add. rewrite decide_False; [done|]. rewrite Hn. by intros [? ?]. Qed.

Lemma add_explicit_ok s l r rule e :
  edges s !! e = None → rxn_empty (Rxn (norm_rule rule) l r) = false →
  add s l r rule (Some e) = (register s e (Rxn (norm_rule rule) l r), None, e).
Proof. intros Hn Hem. by rewrite add_explicit_cases, Hem. Qed.

(** one reaction of a merge: stored as given under an id that was free (its own id when it has
    one, that is free and prefix_edges is off), or refused with ValueError when both sides are
    empty; never any other error *)
Lemma merge_add_spec prefix s eid rule l r s2 er2 :
  merge_add prefix s eid rule l r = (s2, er2) →
  (rxn_empty (Rxn (norm_rule rule) l r) = true ∧ er2 = Some ValueError ∧
   edges s2 = edges s ∧ order s2 = order s) ∨
  (rxn_empty (Rxn (norm_rule rule) l r) = false ∧ er2 = None ∧
   ∃ e', edges s !! e' = None ∧ edges s2 = <[ e' := Rxn (norm_rule rule) l r ]> (edges s) ∧
         order s2 = (order s ++ [e'])%list ∧
         (prefix = false → ∀ e, eid = Some e → edges s !! e = None → e' = e)).
Proof.
  unfold merge_add. destruct (prefix || _) eqn:Hb.
  - destruct (next_id s rule) as [[c e']|] eqn:Hid; [|by apply next_id_total in Hid].
    apply next_id_fresh in Hid. rewrite add_explicit_cases by done.
    destruct (rxn_empty _) eqn:Hem; intros [= <- <-]; [left; done|right].
    split; [done|]. split; [done|]. exists e'. split_and!; [done..|].
    intros -> e [= ->] Hfree. cbn in Hb. apply bool_decide_eq_true in Hb. rewrite Hfree in Hb. by destruct Hb.
  - apply orb_false_iff in Hb as [-> Hb]. destruct eid as [e|]; [|done].
    apply bool_decide_eq_false in Hb. apply eq_None_not_Some in Hb. rewrite add_explicit_cases by done.
    destruct (rxn_empty _) eqn:Hem; intros [= <- <-]; [left; done|right].
    split; [done|]. split; [done|]. exists e. split_and!; [done..|]. by intros _ e' [= ->] _.
Qed.

(** on a well-formed stored reaction it never fails and stores it unchanged *)
Lemma merge_one_spec prefix s e rx s2 er2 :
  r_rule rx ≠ "" → rxn_empty rx = false →
  merge_one prefix (s, None) e rx = (s2, er2) →
  er2 = None ∧ ∃ e', edges s !! e' = None ∧ edges s2 = <[e' := rx]> (edges s) ∧
                     order s2 = (order s ++ [e'])%list ∧
                     (prefix = false → edges s !! e = None → e' = e).
Proof.
  intros Hrule Hem H. rewrite merge_one_add in H. apply merge_add_spec in H.
  rewrite norm_rule_id, rxn_eta in H by done.
  destruct H as [(? & _)|(_ & -> & e' & Hn & HE & HO & Hid)]; [congruence|].
  split; [done|]. exists e'. split_and!; [done..|]. intros Hp He. by apply (Hid Hp e).
Qed.

Lemma merge_fold_spec prefix l : ∀ s,
  (∀ e rx, (e, rx) ∈ l → r_rule rx ≠ "" ∧ rxn_empty rx = false) →
  let res := foldl (λ acc p, merge_one prefix acc p.1 p.2) (s, None) l in
  res.2 = None ∧ edges s ⊆ edges res.1 ∧
  (∀ e rx, (e, rx) ∈ l → ∃ e', edges res.1 !! e' = Some rx ∧ edges s !! e' = None) ∧
  (∀ e' rx, edges res.1 !! e' = Some rx → edges s !! e' = Some rx ∨ ∃ e, (e, rx) ∈ l).
Proof.
  induction l as [|[e rx] l IH]; intros s Hl; cbn [foldl fst snd].
  - split_and!; [done|done|by intros ?? ?%elem_of_nil|by left].
  - destruct (merge_one prefix (s, None) e rx) as [s2 er2] eqn:H1.
    destruct (Hl e rx) as [Hr Hem]; [by left|].
    destruct (merge_one_spec _ _ _ _ _ _ Hr Hem H1) as (-> & e1 & Hn1 & HE2 & _).
    destruct (IH s2) as (Her & Hsub & Hall & Honly); [intros e0 rx0 ?; apply (Hl e0 rx0); by right|].
    assert (Hs2 : edges s ⊆ edges s2) by (rewrite HE2; by apply insert_subseteq).
    split_and!.
    + done.
    + by etrans.
    + intros e0 rx0 [[= -> ->]|Hin]%elem_of_cons.
      * exists e1. split; [|done]. eapply lookup_weaken; [|done]. rewrite HE2. apply lookup_insert.
      * destruct (Hall e0 rx0 Hin) as (e' & ? & ?). exists e'. split; [done|].
        by eapply lookup_weaken_None.
    + intros e' rx' [Hs|[e0 Hin]]%Honly.
      * rewrite HE2 in Hs. apply lookup_insert_Some in Hs as [[<- <-]|[_ ?]]; [|by left].
        right. exists e. by left.
      * right. exists e0. by right.
Qed.

Lemma merge_fold_nocoll l : ∀ s,
  NoDup l.*1 →
  (∀ e rx, (e, rx) ∈ l → r_rule rx ≠ "" ∧ rxn_empty rx = false ∧ edges s !! e = None) →
  let res := foldl (λ acc p, merge_one false acc p.1 p.2) (s, None) l in
  edges res.1 = edges s ∪ list_to_map l ∧ order res.1 = (order s ++ l.*1)%list.
Proof.
  induction l as [|[e rx] l IH]; intros s Hnd Hl; cbn [foldl fst snd fmap list_fmap].
  - split; [by rewrite list_to_map_nil, (right_id_L ∅ (∪))|by rewrite app_nil_r].
  - destruct (merge_one false (s, None) e rx) as [s2 er2] eqn:H1.
    destruct (Hl e rx) as (Hr & Hem & Hn); [by left|].
    destruct (merge_one_spec _ _ _ _ _ _ Hr Hem H1) as (-> & e1 & Hn1 & HE2 & HO2 & He1).
    rewrite (He1 eq_refl Hn) in *. clear He1.
    cbn in Hnd. apply NoDup_cons in Hnd as [Hnin Hnd].
    destruct (IH s2 Hnd) as [HE HO].
    { intros e0 rx0 Hin. destruct (Hl e0 rx0) as (? & ? & ?); [by right|]. split_and!; [done..|].
      rewrite HE2, lookup_insert_ne; [done|]. intros <-. apply Hnin.
      apply elem_of_list_fmap. by exists (e, rx0). }
    split.
    + rewrite HE, HE2. rewrite <- insert_union_l. by rewrite insert_union_r.
    + rewrite HO, HO2. by rewrite <- app_assoc.
Qed.

Lemma elem_of_edge_seq o e rx : (e, rx) ∈ edge_seq o ↔ e ∈ order o ∧ edges o !! e = Some rx.
Proof.
  unfold edge_seq. rewrite elem_of_list_omap. split.
  - intros (e0 & Hin & Hf). destruct (edges o !! e0) eqn:He; simplify_eq/=. done.
  - intros [Hin He]. exists e. by rewrite He.
Qed.

Lemma edge_seq_fst o : (∀ e, e ∈ order o → is_Some (edges o !! e)) → (edge_seq o).*1 = order o.
Proof.
  unfold edge_seq. induction (order o) as [|e l IH]; intros H; cbn; [done|].
  destruct (H e) as [rx ->]; [by left|]. cbn. f_equal. apply IH. intros ??; apply H. by right.
Qed.

Lemma edge_seq_map o : Inv o → list_to_map (edge_seq o) = edges o.
Proof.
  intros HI. apply map_eq. intros e. apply option_eq. intros rx.
  rewrite <- elem_of_list_to_map.
  - rewrite elem_of_edge_seq, (inv_order _ HI). split; [by intros [_ ?]|]. split; [eauto|done].
  - rewrite edge_seq_fst; [apply HI|]. intros ?. apply HI.
Qed.

Lemma merge_spec s o prefix s' er :
  Inv o → merge s o prefix = (s', er) →
  er = None ∧ edges s ⊆ edges s' ∧
  (∀ e rx, edges o !! e = Some rx → ∃ e', edges s' !! e' = Some rx ∧ edges s !! e' = None) ∧
  (∀ e' rx, edges s' !! e' = Some rx → edges s !! e' = Some rx ∨ ∃ e, edges o !! e = Some rx) ∧
  (prefix = false → dom (edges s) ## dom (edges o) →
   edges s' = edges s ∪ edges o ∧ order s' = (order s ++ order o)%list).
Proof.
  intros HO Heq. unfold merge in Heq.
  assert (Hwf : ∀ e rx, (e, rx) ∈ edge_seq o → r_rule rx ≠ "" ∧ rxn_empty rx = false).
  { intros e rx [_ He]%elem_of_edge_seq. split; [by eapply (inv_rule _ HO)|by eapply (inv_nonempty _ HO)]. }
  destruct (merge_fold_spec prefix (edge_seq o) s Hwf) as (Her & Hsub & Hall & Honly).
  rewrite Heq in Her, Hsub, Hall, Honly. cbn in *. split_and!; [done|done|..].
  - intros e rx He. apply (Hall e). apply elem_of_edge_seq. split; [|done]. apply (inv_order _ HO). eauto.
  - intros e' rx [?|[e Hin]]%Honly; [by left|]. right. exists e. by apply elem_of_edge_seq in Hin as [_ ?].
  - intros -> Hdisj.
    destruct (merge_fold_nocoll (edge_seq o) s) as [HE HOr].
    + rewrite edge_seq_fst; [apply HO|]. intros ?. apply HO.
    + intros e rx Hin. destruct (Hwf e rx Hin). split_and!; [done..|].
      apply elem_of_edge_seq in Hin as [_ He]. apply not_elem_of_dom.
      intros Hd. apply (Hdisj e Hd). apply elem_of_dom. eauto.
    + rewrite Heq in HE, HOr. cbn in *. rewrite edge_seq_map in HE by done.
      rewrite edge_seq_fst in HOr; [done|]. intros ?. apply HO.
Qed.

(** * 9. Histories: a stored reaction stays, under its id and unchanged, unless
    the operation removes it, strips one of its species, or overwrites the whole
    network by a copy *)

Lemma getn_setn_eq w k s : k < length w → getn (setn w k s) k = s.
Proof.
  intros Hk. unfold getn, setn, world in *. rewrite nth_lookup, list_lookup_insert; done.
Qed.
Lemma getn_ge w k : length w ≤ k → getn w k = empty_net.
Proof. intros Hk. unfold getn, world in *. by rewrite nth_lookup, lookup_ge_None_2. Qed.

Definition may_drop (o : op) (k : nat) (e : string) (rx : rxn) : Prop :=
  match o with
  | ORemoveRxn i e' => i = k ∧ e' = e
  | ORemoveSpecies i x _ => i = k ∧ x ∈ rxn_species rx
  | OCopy _ j => j = k
  | _ => False
  end.

Lemma step_stored_kept w o k e rx :
  Forall Inv w → edges (getn w k) !! e = Some rx → ¬ may_drop o k e rx →
  edges (getn (step w o).1 k) !! e = Some rx.
Proof.
  intros Hw He Hnd. destruct (decide (k = target o)) as [->|Hne]; [|by rewrite step_frame].
  destruct (decide (target o < length w)) as [Hlt|Hge]; cycle 1.
  { rewrite getn_ge in He by lia. cbn in He. by rewrite lookup_empty in He. }
  pose proof (getn_Inv w (target o) Hw) as HI.
  rewrite step_setn. cbn [fst]. rewrite getn_setn_eq by done.
  destruct o as [i l r rule eid|i e'|i x p|i j p|i j|i x m|i mp st cl]; cbn [step_net target may_drop fst] in *.
  - destruct (add _ _ _ _ _) as [[s' er] e0] eqn:Ha. cbn [fst]. apply add_spec in Ha as [_ Ha]. destruct er as [er|].
    + destruct Ha as (-> & _). done.
    + destruct Ha as (Hn & _ & -> & _). rewrite lookup_insert_ne; [done|]. intros <-. congruence.
  - destruct (remove_rxn _ _) as [s' er] eqn:Ha. cbn [fst].
    apply remove_rxn_spec in Ha as [(_ & _ & -> & _)|(_ & _ & ->)]; [|done].
    rewrite lookup_delete_ne; [done|]. intros ->. by apply Hnd.
  - destruct (remove_species _ _ _) as [s' er] eqn:Ha. cbn [fst].
    apply remove_species_spec in Ha as [(_ & _ & ->)|(_ & _ & ->)]; [|done..].
    apply lookup_strip. exists rx. assert (Hx : x ∉ rxn_species rx) by (intros ?; by apply Hnd).
    rewrite strip_absent by done. split_and!; [done..|]. by eapply (inv_nonempty _ HI).
  - destruct (merge _ _ _) as [s' er] eqn:Ha. cbn [fst].
    apply merge_spec in Ha as (_ & Hsub & _); [|by apply getn_Inv]. by eapply lookup_weaken.
  - by destruct Hnd.
  - unfold assign_mol. by destruct (decide _).
  - unfold set_mol_map. by destruct (_ && _).
Qed.

Lemma copy_spec w i j : j < length w → getn (step w (OCopy i j)).1 j = getn w i.
Proof. intros Hj. cbn. by apply getn_setn_eq. Qed.

(** * 10. Non-vacuity *)

Local Instance err_eq_dec : EqDecision err.
Proof. solve_decision. Defined.

Definition ex_history : list op :=
  [ OAdd 0 [("A", 1%Z); ("B", 2%Z)] [("C", 1%Z)] "" None;
    OCopy 0 1;
    ORemoveSpecies 0 "A" true ].

(** a concrete 3-op history: the original loses A (and only A), the copy taken
    before the edit keeps it; the hypotheses of the step theorems are inhabited *)
Example C15_history_nonvacuous :
  let w := fold_left (λ w o, (step w o).1) ex_history (init_world 2) in
  Forall Inv w ∧
  order (getn w 0) = ["r_1"] ∧ order (getn w 1) = ["r_1"] ∧
  species (getn w 0) = {["B"; "C"]} ∧ species (getn w 1) = {["A"; "B"; "C"]} ∧
  r_lhs <$> edges (getn w 0) !! "r_1" = Some {["B" := 2%positive]} ∧
  r_lhs <$> edges (getn w 1) !! "r_1" = Some {["A" := 1%positive; "B" := 2%positive]} ∧
  list_to_set (incidence (getn w 0)) =@{gset (string * string * Z)} {[("B", "r_1", (-2)%Z); ("C", "r_1", 1%Z)]}.
Proof.
  cbv zeta. split; [apply run_Inv, init_world_Inv|].
  split_and!; apply (bool_decide_unpack _); vm_compute; exact I.
Qed.

(** the id generator skips taken ids: after a caller-chosen "r_1" the generated id is
    "r_2" and the first reaction is still stored (a generator that does not probe returns
    "r_1" here and overwrites the first reaction) *)
Example C15_old_id_collision :
  let '(s1, er1, e1) := add empty_net {["A" := 1%positive]} {["B" := 1%positive]} "r" (Some "r_1") in
  let '(s2, er2, e2) := add s1 {["C" := 1%positive]} {["D" := 1%positive]} "" None in
  er1 = None ∧ e1 = "r_1" ∧ er2 = None ∧ e2 = "r_2" ∧
  r_lhs <$> edges s2 !! "r_1" = Some {["A" := 1%positive]} ∧
  r_lhs <$> edges s2 !! "r_2" = Some {["C" := 1%positive]} ∧
  default ∅ (s_out s2 !! "A") = {["r_1"]} ∧ default ∅ (s_in s2 !! "D") = {["r_2"]}.
Proof.
  apply (bool_decide_unpack _). vm_compute. exact I.
Qed.

(** remove_rxn / merge / error outcomes are exercised too *)
Definition exs1 : net := (add empty_net {["A" := 1%positive]} {["B" := 1%positive]} "r" None).1.1.
Definition exs2 : net := (add exs1 {["B" := 1%positive]} {["C" := 3%positive]} "q" (Some "x")).1.1.
Definition exs3 : net := (remove_rxn exs2 "r_1").1.
Example C15_ops_nonvacuous :
  (remove_rxn exs2 "r_1").2 = None ∧ species exs3 = {["B"; "C"]} ∧ order exs3 = ["x"] ∧
  (merge exs3 exs2 true).2 = None ∧ order (merge exs3 exs2 true).1 = ["x"; "r_2"; "q_1"] ∧
  (merge exs3 exs2 false).2 = None ∧ order (merge exs3 exs2 false).1 = ["x"; "r_1"; "q_1"] ∧
  (remove_rxn exs3 "r_1").2 = Some KeyError ∧
  (remove_species exs3 "A" true).2 = Some KeyError ∧
  (add exs3 ∅ ∅ "r" None).1.2 = Some ValueError ∧
  (add exs3 {["A" := 1%positive]} ∅ "r" (Some "x")).1.2 = Some KeyError.
Proof.
  split_and!; apply (bool_decide_unpack _); vm_compute; exact I.
Qed.
