(** C03 — clause (c) as one equation between finite sets: the changed bonds of the glued ITS, each as
    (unordered atom pair, order change), are a permutation of the images under the match of the rule's changed bonds. *)
From Coq Require Import List NArith ZArith Bool Lia Permutation.
From SK Require Import lib.Tok lib.LGraph model.C03_Model proof.C03_Proof proof.C03_Glue.
Import ListNotations.
Local Open Scope Z_scope.

Lemma norm_pair_peq a b u v : norm_pair a b = norm_pair u v <-> peq a b u v = true.
Proof.
  rewrite peq_spec. unfold norm_pair. split.
  - intros [= H1 H2]. lia.
  - intros [[-> ->]|[-> ->]]; [reflexivity|]. f_equal; lia.
Qed.

(** simple edge lists: distinct normalised pairs; membership = lookup *)
Lemma simple_nodup_pairs {B} (es : list (N * N * B)) : simpleP (pairs es) ->
  NoDup (map (fun e => norm_pair (fst (fst e)) (snd (fst e))) es).
Proof.
  induction es as [|[[a b] x] r IH]; simpl; intros H; [constructor|]. destruct H as (_ & H2 & H3). constructor; [|auto].
  intros I. apply in_map_iff in I. destruct I as ([[u v] y] & E & I). simpl in E.
  apply norm_pair_peq in E. rewrite (H2 u v) in E; [discriminate|].
  unfold pairs. change (u, v) with (fst (u, v, y)). apply in_map. exact I.
Qed.
Lemma simple_in_find {B} (es : list (N * N * B)) a b x : simpleP (pairs es) -> In (a, b, x) es -> find_edge a b es = Some x.
Proof.
  induction es as [|[[p q] y] r IH]; intros H I; [destruct I|]. destruct H as (_ & H2 & H3).
  rewrite find_edge_cons. destruct I as [I|I].
  - inversion I; subst. rewrite peq_refl. reflexivity.
  - assert (E : peq p q a b = false).
    { rewrite peq_swap. apply H2. unfold pairs. change (a, b) with (fst (a, b, x)). apply in_map. exact I. }
    rewrite E. apply IH; assumption.
Qed.

Lemma nodup_map_fst {A K V} (f : A -> K) (g : A -> K * V) l : (forall x, fst (g x) = f x) -> NoDup (map f l) -> NoDup (map g l).
Proof.
  intros Hf. induction l as [|x r IH]; simpl; intros H; [constructor|]. inversion H as [|? ? H1 H2]; subst. constructor; [|auto].
  intros I. apply H1. apply in_map_iff in I. destruct I as (y & E & I). apply in_map_iff. exists y. split; [|exact I].
  rewrite <- !Hf, E. reflexivity.
Qed.
Lemma nodup_map_filter {A K} (f : A -> K) (c : A -> bool) l : NoDup (map f l) -> NoDup (map f (filter c l)).
Proof.
  induction l as [|x r IH]; simpl; intros H; [constructor|]. inversion H as [|? ? H1 H2]; subst.
  destruct (c x); simpl; [constructor|]; auto.
  intros I. apply H1. apply in_map_iff in I. destruct I as (y & E & I). apply filter_In in I. apply in_map_iff. exists y. tauto.
Qed.

(** images of distinct rule edges are distinct host pairs *)
Lemma image_nodup m (es : list (N * N * iedge)) : distinct_images m es -> forall c, NoDup (flat_map (image_key m) (filter c es)).
Proof.
  intros Hd c. induction es as [|e r IH]; simpl; [constructor|]. destruct Hd as [Hd1 Hd2].
  destruct (c e); [|auto]. simpl. unfold image_key at 1. destruct e as [[u v] x]; cbn [fst snd].
  destruct (mget m u) as [hu|] eqn:E1; [|simpl; auto]. destruct (mget m v) as [hv|] eqn:E2; [|simpl; auto].
  simpl. constructor; [|auto]. intros I. apply in_flat_map in I. destruct I as ([[u' v'] x'] & I & I').
  apply filter_In in I. destruct I as [I _]. unfold image_key in I'. cbn [fst snd] in I'.
  destruct (mget m u') as [hu'|] eqn:E3; [|destruct I']. destruct (mget m v') as [hv'|] eqn:E4; [|destruct I'].
  destruct I' as [I'|[]]. inversion I' as [[H1 H2 H3]].
  assert (Hp : peq hu' hv' hu hv = true) by (apply norm_pair_peq; unfold norm_pair; congruence).
  assert (Hh : hits m (u, v, x) hu hv = true) by (unfold hits, img; rewrite E1, E2; apply peq_refl).
  pose proof (find_hit_none_in m r hu hv (u', v', x') (Hd1 hu hv Hh) I) as Hn.
  unfold hits, img in Hn. rewrite E3, E4, Hp in Hn. discriminate.
Qed.

Section Iso.
  Variables (host : hostg) (rc : its) (m : mapping) (T : its).
  Hypothesis Hwh : wf_hostb host = true.
  Hypothesis Hwr : wf_rcb rc = true.
  Hypothesis Hm : match_rcb host rc m = true.
  Hypothesis Hg : glue host rc m = Some T.

  Theorem changed_bonds_perm : Permutation (changed_bonds T) (image_changed_bonds m rc).
  Proof.
    pose proof (match_rcb_sound host rc m (wf_rc_nodup rc Hwr) Hm) as MO.
    pose proof (distinct_images_of m (gedges rc) (mo_vals _ _ _ MO) (wf_rc_simple rc Hwr)) as DI.
    pose proof (glued_simple host rc m T Hwh Hwr Hm Hg) as Hs.
    destruct (changes_exact host rc m T Hwr Hm Hg) as (_ & C1 & C2 & _).
    apply NoDup_Permutation.
    - unfold changed_bonds. apply (nodup_map_fst (fun e => norm_pair (fst (fst e)) (snd (fst e)))); [reflexivity|].
      apply nodup_map_filter. apply simple_nodup_pairs. exact Hs.
    - apply image_nodup. exact DI.
    - intros k. split.
      + intros I. unfold changed_bonds in I. apply in_map_iff in I. destruct I as ([[a b] y] & <- & I).
        apply filter_In in I. destruct I as [I Hc]. unfold is_changed in Hc. cbn [snd] in Hc.
        apply negb_true_iff in Hc. apply Z.eqb_neq in Hc.
        pose proof (simple_in_find (gedges T) a b y Hs I) as Ha.
        destruct (C2 a b y Ha Hc) as (u & v & x & hu & hv & Ix & E1 & E2 & Ep & Ed).
        unfold image_changed_bonds. apply in_flat_map. exists (u, v, x). split.
        * apply filter_In. split; [exact Ix|]. unfold is_changed. cbn [snd]. apply negb_true_iff. apply Z.eqb_neq. lia.
        * unfold image_key, bond_key. cbn [fst snd]. rewrite E1, E2. left.
          rewrite (proj2 (norm_pair_peq hu hv a b) Ep), Ed. reflexivity.
      + intros I. unfold image_changed_bonds in I. apply in_flat_map in I. destruct I as ([[u v] x] & I & I').
        apply filter_In in I. destruct I as [I Hc]. unfold is_changed in Hc. cbn [snd] in Hc.
        apply negb_true_iff in Hc. apply Z.eqb_neq in Hc.
        destruct (C1 u v x I) as (hu & hv & y & E1 & E2 & Ea & Ed).
        unfold image_key in I'. cbn [fst snd] in I'. rewrite E1, E2 in I'. destruct I' as [<-|[]].
        unfold adj in Ea. apply find_edge_in in Ea. destruct Ea as (p & q & Iy & Ep).
        unfold changed_bonds. apply in_map_iff. exists (p, q, y). split.
        * unfold bond_key. cbn [fst snd]. rewrite (proj2 (norm_pair_peq p q hu hv) Ep), Ed. reflexivity.
        * apply filter_In. split; [exact Iy|]. unfold is_changed. cbn [snd]. apply negb_true_iff. apply Z.eqb_neq. lia.
  Qed.
End Iso.
