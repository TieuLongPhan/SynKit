(** C07 — specification-level definitions (what "contained", "isomorphic", "valid embedding" mean) and the bridge
    between them and the verified enumerator lib/Mono.v / the decision procedure [has_mono] the correspondence runs.
    Stdlib lists. *)
From Coq Require Import List NArith Bool Lia Permutation.
From SK Require Import lib.LGraph lib.Mono model.C07_Model.
Import ListNotations.

(** well-formed simple undirected graph: distinct node ids, every edge joins two distinct nodes, every unordered pair stored once *)
Definition gwf (g : graph) : Prop := LGraph.wf g.

(** [emb ind nm em H P f]: f is a label-preserving monomorphism of the pattern P into the host H
    (induced when [ind = true]: pattern non-edges go to host non-edges).  nm / em receive (host attrs, pattern attrs). *)
Definition emb (ind : bool) (nm em : attrs -> attrs -> bool) (H P : graph) (f : N -> N) : Prop :=
  (forall u, In u (node_ids P) -> In (f u) (node_ids H) /\ nm (nlabel H (f u)) (nlabel P u) = true) /\
  (forall u v, In u (node_ids P) -> In v (node_ids P) -> f u = f v -> u = v) /\
  (forall u v, In u (node_ids P) -> In v (node_ids P) -> u <> v ->
     match LGraph.adj P u v, LGraph.adj H (f u) (f v) with
     | Some b, Some b' => em b' b = true
     | Some _, None => False
     | None, Some _ => ind = false
     | None, None => True
     end).

Definition contained (ind : bool) (nm em : attrs -> attrs -> bool) (H P : graph) : Prop := exists f, emb ind nm em H P f.

(** an isomorphism G2 -> G1: an induced embedding that is onto (adjacency is preserved in both directions) *)
Definition iso_map (nm em : attrs -> attrs -> bool) (G1 G2 : graph) (f : N -> N) : Prop :=
  emb true nm em G1 G2 f /\ (forall h, In h (node_ids G1) -> exists u, In u (node_ids G2) /\ f u = h).

(** a mapping given as a list of (pattern node, host node) pairs *)
Definition mfun (m : mapping) (u : N) : N := match assoc u m with Some h => h | None => 0%N end.
Definition mapping_valid (ind : bool) (nm em : attrs -> attrs -> bool) (H P : graph) (m : mapping) : Prop :=
  NoDup (map fst m) /\ (forall u, In u (map fst m) <-> In u (node_ids P)) /\ emb ind nm em H P (mfun m).

(** the VF2 oracle contracts (premises of the theorems; the harness monitors them on every case) *)
Definition vf2b_contract (vf2b : bool -> (attrs -> attrs -> bool) -> (attrs -> attrs -> bool) -> graph -> graph -> bool) : Prop :=
  forall ind nm em G1 G2, gwf G1 -> gwf G2 -> (vf2b ind nm em G1 G2 = true <-> contained ind nm em G1 G2).
Definition enum_contract (enum : (attrs -> attrs -> bool) -> (attrs -> attrs -> bool) -> graph -> graph -> list mapping) : Prop :=
  forall nm em H P, gwf H -> gwf P ->
    (forall m, In m (enum nm em H P) -> mapping_valid true nm em H P m) /\
    (contained true nm em H P -> enum nm em H P <> []).

Lemma combine_map_self (f : N -> N) l : combine l (map f l) = map (fun u => (u, f u)) l.
Proof. induction l; simpl; congruence. Qed.

Lemma map_fst_combine (l : list N) : forall hs : list N, length hs = length l -> map fst (combine l hs) = l.
Proof. induction l; intros [|h hs] E; simpl in *; try discriminate; auto. f_equal. apply IHl. lia. Qed.

Lemma in_two_split {X} (a b : X) m : In a m -> In b m -> a <> b ->
  (exists l1 l2 l3, m = l1 ++ a :: l2 ++ b :: l3) \/ (exists l1 l2 l3, m = l1 ++ b :: l2 ++ a :: l3).
Proof.
  intros Ia Ib Hne. apply in_split in Ia. destruct Ia as (l1 & r & ->).
  apply in_app_or in Ib. destruct Ib as [Ib|[Ib|Ib]]; [|congruence|].
  - right. apply in_split in Ib. destruct Ib as (k1 & k2 & ->). exists k1, k2, r. rewrite <- app_assoc. reflexivity.
  - left. apply in_split in Ib. destruct Ib as (k1 & k2 & ->). exists l1, k1, k2. reflexivity.
Qed.

Lemma in_swap_pairs (m : mapping) h u : In (h, u) (swap_pairs m) <-> In (u, h) m.
Proof.
  unfold swap_pairs. rewrite in_map_iff. split.
  - intros ([a b] & E & I). simpl in E. inversion E; subst. exact I.
  - intros I. exists (u, h). auto.
Qed.

Lemma fst_swap_pairs (m : mapping) : map fst (swap_pairs m) = map snd m.
Proof. unfold swap_pairs. rewrite map_map. reflexivity. Qed.

Lemma nodup_snd_inj (m : mapping) u v h : NoDup (map snd m) -> In (u, h) m -> In (v, h) m -> u = v.
Proof.
  intros Hnd I1 I2. rewrite <- fst_swap_pairs in Hnd. apply in_swap_pairs in I1. apply in_swap_pairs in I2.
  pose proof (assoc_nodup_in h _ u Hnd I1) as A. rewrite (assoc_nodup_in h _ v Hnd I2) in A. congruence.
Qed.

Lemma mfun_in (m : mapping) u : NoDup (map fst m) -> In u (map fst m) -> In (u, mfun m u) m.
Proof.
  intros Hnd I. apply in_map_iff in I. destruct I as ([a h] & E & I). simpl in E. subst a.
  unfold mfun. rewrite (assoc_nodup_in u m h Hnd I). exact I.
Qed.

Lemma mfun_rev_combine (f : N -> N) l u : NoDup l -> In u l -> mfun (rev (combine l (map f l))) u = f u.
Proof.
  intros Hnd Iu. rewrite combine_map_self, <- map_rev. unfold mfun.
  assert (I : In (u, f u) (map (fun v => (v, f v)) (rev l))) by (apply in_map_iff; exists u; split; auto; apply in_rev in Iu; exact Iu).
  rewrite (assoc_nodup_in u _ (f u)); auto.
  rewrite map_map. simpl. rewrite map_id. apply NoDup_rev. exact Hnd.
Qed.

Lemma any_spec {X} (f : X -> bool) l : any f l = true <-> exists x, In x l /\ f x = true.
Proof.
  induction l as [|x l IH]; simpl.
  - split; [discriminate|intros (x & [] & _)].
  - destruct (f x) eqn:E.
    + split; auto. intros _. exists x. auto.
    + rewrite IH. split; intros (y & I & Hy); [exists y; auto|]. destruct I as [->|I]; [congruence|exists y; auto].
Qed.

Section Bridge.
Variable ind : bool.
Variables nm em : attrs -> attrs -> bool.
Variables H P : graph.

Definition mvalid := valid (node_ids H) (nlabel P) (nlabel H) (LGraph.adj P) (LGraph.adj H) nm em ind.

Lemma edge_ok_emb u v hu hv :
  edge_ok (LGraph.adj P) (LGraph.adj H) em ind u hu (v, hv) = true <->
  match LGraph.adj P u v, LGraph.adj H hu hv with
  | Some b, Some b' => em b' b = true
  | Some _, None => False
  | None, Some _ => ind = false
  | None, None => True
  end.
Proof.
  unfold edge_ok; simpl. destruct (LGraph.adj P u v), (LGraph.adj H hu hv); try tauto.
  - split; [discriminate|tauto].
  - rewrite negb_true_iff. tauto.
Qed.

Lemma emb_valid_list f : emb ind nm em H P f ->
  forall l, NoDup l -> incl l (node_ids P) -> mvalid (map (fun u => (u, f u)) l).
Proof.
  intros (E1 & E2 & E3). induction l as [|p l IH]; intros Hnd Hin; simpl; [constructor|].
  inversion Hnd as [|? ? Hp Hnd']; subst.
  assert (Ip : In p (node_ids P)) by (apply Hin; left; reflexivity).
  assert (Hl : incl l (node_ids P)) by (intros x Ix; apply Hin; right; exact Ix).
  constructor; [apply IH; auto | apply E1; auto |].
  unfold ok. rewrite (proj2 (E1 p Ip)). simpl. apply andb_true_intro. split.
  - apply fresh_spec. rewrite map_map. simpl. intros I. apply in_map_iff in I. destruct I as (v & Ev & Iv).
    apply Hp. rewrite <- (E2 v p (Hl v Iv) Ip Ev). exact Iv.
  - apply forallb_forall. intros [v hv] I. apply in_map_iff in I. destruct I as (w & Ew & Iw). inversion Ew; subst.
    apply edge_ok_emb. apply E3; auto. intros ->. contradiction.
Qed.

Lemma emb_valid f : NoDup (node_ids P) -> emb ind nm em H P f -> mvalid (rev (combine (node_ids P) (map f (node_ids P)))).
Proof.
  intros Hnd He. rewrite combine_map_self, <- map_rev. apply emb_valid_list; auto.
  - apply NoDup_rev. exact Hnd.
  - intros x I. apply in_rev. exact I.
Qed.

Lemma valid_emb m : mvalid m -> NoDup (map fst m) -> (forall u, In u (map fst m) <-> In u (node_ids P)) -> emb ind nm em H P (mfun m).
Proof.
  intros Hv Hnd Hdom. destruct (valid_pointwise Hv) as (V1 & V2 & V3).
  assert (Hin : forall u, In u (node_ids P) -> In (u, mfun m u) m) by (intros u Iu; apply mfun_in; auto; apply Hdom; exact Iu).
  split; [|split].
  - intros u Iu. apply (V1 u (mfun m u)). auto.
  - intros u v Iu Iv E. apply (nodup_snd_inj m u v (mfun m u) V2); auto. rewrite E. auto.
  - intros u v Iu Iv Hne. apply edge_ok_emb.
    destruct (in_two_split (u, mfun m u) (v, mfun m v) m (Hin u Iu) (Hin v Iv)) as [(l1 & l2 & l3 & E)|(l1 & l2 & l3 & E)].
    + congruence.
    + eapply V3. exact E.
    + rewrite edge_ok_sym; [eapply V3; exact E | apply adj_sym | apply adj_sym].
Qed.

Lemma ext_any_spec ps : forall acc,
  ext_any H P nm em ind ps acc = true <->
  exists m, In m (extend (node_ids H) (nlabel P) (nlabel H) (LGraph.adj P) (LGraph.adj H) nm em ind ps acc).
Proof.
  induction ps as [|p ps IH]; intros acc; simpl.
  - split; auto. intros _. exists acc. left. reflexivity.
  - rewrite any_spec. split.
    + intros (h & Ih & Hh). destruct (ok _ _ _ _ _ _ _ p h acc) eqn:Eo; [|discriminate].
      apply IH in Hh. destruct Hh as (m & Im). exists m. apply in_flat_map. exists h. split; auto. rewrite Eo. exact Im.
    + intros (m & Im). apply in_flat_map in Im. destruct Im as (h & Ih & Im). exists h. split; auto.
      destruct (ok _ _ _ _ _ _ _ p h acc); [|destruct Im]. apply IH. exists m. exact Im.
Qed.

Lemma has_mono_monos : has_mono ind nm em H P = true <-> exists m, In m (monos_g ind nm em H P).
Proof. apply ext_any_spec. Qed.

Lemma monos_g_sound m : NoDup (node_ids P) -> In m (monos_g ind nm em H P) -> mapping_valid ind nm em H P m.
Proof.
  intros Hnd I. apply monos_only_such in I. destruct I as (hs & Hl & -> & Hv).
  assert (Ef : map fst (rev (combine (node_ids P) hs)) = rev (node_ids P)) by (rewrite map_rev, map_fst_combine; auto).
  assert (D1 : NoDup (map fst (rev (combine (node_ids P) hs)))) by (rewrite Ef; apply NoDup_rev; exact Hnd).
  assert (D2 : forall u, In u (map fst (rev (combine (node_ids P) hs))) <-> In u (node_ids P)) by (intros u; rewrite Ef; symmetry; apply in_rev).
  split; [exact D1|]. split; [exact D2|]. apply valid_emb; auto.
Qed.

Lemma monos_g_complete f : NoDup (node_ids P) -> emb ind nm em H P f ->
  exists m, In m (monos_g ind nm em H P) /\ forall u, In u (node_ids P) -> mfun m u = f u.
Proof.
  intros Hnd He. exists (rev (combine (node_ids P) (map f (node_ids P)))). split.
  - apply monos_spec; [apply map_length | apply emb_valid; auto].
  - intros u Iu. apply mfun_rev_combine; auto.
Qed.

Theorem has_mono_spec : NoDup (node_ids P) -> (has_mono ind nm em H P = true <-> contained ind nm em H P).
Proof.
  intros Hnd. rewrite has_mono_monos. split.
  - intros (m & I). exists (mfun m). apply (monos_g_sound m Hnd I).
  - intros (f & He). destruct (monos_g_complete f Hnd He) as (m & I & _). exists m. exact I.
Qed.
End Bridge.

Lemma gwf_nodup g : gwf g -> NoDup (node_ids g).
Proof. intros (A & _). exact A. Qed.

(** the instances the correspondence run uses satisfy the contracts *)
Theorem has_mono_contract : vf2b_contract has_mono.
Proof. intros ind nm em G1 G2 _ W2. apply has_mono_spec. apply gwf_nodup. exact W2. Qed.

Theorem monos_g_contract : enum_contract (monos_g true).
Proof.
  intros nm em H P _ WP. split.
  - intros m I. apply monos_g_sound; auto. apply gwf_nodup. exact WP.
  - intros (f & He) E. destruct (monos_g_complete true nm em H P f (gwf_nodup P WP) He) as (m & I & _). rewrite E in I. destruct I.
Qed.
