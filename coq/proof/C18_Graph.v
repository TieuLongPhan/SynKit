(** C18 — graph lemmas: relabelling, well-formed views, presentation equality, isomorphism as an equivalence,
    the canonical numbering [cid], and insert-or-update on association lists ([upsert]). *)
From Coq Require Import List NArith ZArith Bool Arith Lia Permutation.
From SK Require Import lib.IRSortKeys lib.IRCore lib.IRSearch model.C18_Model proof.C18_Spec.
Import ListNotations.

Lemma memN_spec x c : memN x c = true <-> In x c.
Proof.
  unfold memN. rewrite existsb_exists. split.
  - intros (y & I & E). apply N.eqb_eq in E. subst. auto.
  - intros I. exists x. split; auto. apply N.eqb_refl.
Qed.

Lemma node_ids_relabel f g : node_ids (relabel f g) = map f (node_ids g).
Proof. unfold node_ids, relabel. simpl. rewrite !map_map. reflexivity. Qed.

Lemma eqb_inj_on f l x y : inj_on f l -> In x l -> In y l -> N.eqb (f x) (f y) = N.eqb x y.
Proof.
  intros Hf Hx Hy. destruct (N.eqb_spec x y) as [->|Hne]; [apply N.eqb_refl|].
  apply N.eqb_neq. intro E. apply Hne. apply Hf; auto.
Qed.

Lemma kind_of_l_relabel f l v : inj_on f (map fst l) -> In v (map fst l) ->
  kind_of_l (map (fun p => (f (fst p), snd p)) l) (f v) = kind_of_l l v.
Proof.
  intros Hf Hv. assert (H : forall l', incl (map fst l') (map fst l) ->
    kind_of_l (map (fun p => (f (fst p), snd p)) l') (f v) = kind_of_l l' v).
  { induction l' as [|[u k] l' IH]; simpl; intros Hi; auto.
    rewrite (eqb_inj_on f (map fst l)); auto; [|apply Hi; left; auto].
    destruct (N.eqb u v); auto. apply IH. intros x Hx. apply Hi. right. auto. }
  apply H. apply incl_refl.
Qed.
Lemma kind_of_relabel f g v : inj_on f (node_ids g) -> In v (node_ids g) -> kind_of (relabel f g) (f v) = kind_of g v.
Proof. intros. apply kind_of_l_relabel; auto. Qed.

Lemma find_arc_relabel f g u v : wf g -> inj_on f (node_ids g) -> In u (node_ids g) -> In v (node_ids g) ->
  find_arc (relabel f g) (f u) (f v) = find_arc g u v.
Proof.
  intros (_ & _ & He) Hf Hu Hv. unfold find_arc, relabel. simpl.
  induction (varcs g) as [|e l IH]; simpl; auto.
  destruct (He e (or_introl eq_refl)) as [Hs Hd].
  change (asrc (f (asrc e), f (adst e), aattr e)) with (f (asrc e)).
  change (adst (f (asrc e), f (adst e), aattr e)) with (f (adst e)).
  change (aattr (f (asrc e), f (adst e), aattr e)) with (aattr e).
  rewrite !(eqb_inj_on f (node_ids g)); auto.
  destruct (N.eqb (asrc e) u && N.eqb (adst e) v); auto.
  apply IH. intros e' I. apply He. right. auto.
Qed.

Lemma NoDup_map_inj_on {A B} (f : A -> B) l : (forall x y, In x l -> In y l -> f x = f y -> x = y) -> NoDup l -> NoDup (map f l).
Proof.
  induction l as [|x l IH]; simpl; intros Hf Hnd; [constructor|].
  inversion Hnd; subst. constructor.
  - intro I. apply in_map_iff in I. destruct I as (y & E & I). assert (y = x) by (apply Hf; auto). subst. auto.
  - apply IH; auto.
Qed.

Lemma wf_relabel f g : wf g -> inj_on f (node_ids g) -> wf (relabel f g).
Proof.
  intros (Hn & Ha & He) Hf. split; [|split].
  - rewrite node_ids_relabel. apply NoDup_map_inj_on; auto.
  - unfold relabel; simpl. rewrite map_map.
    assert (E : map (fun x => akey (f (asrc x), f (adst x), aattr x)) (varcs g)
                = map (fun k => (f (fst k), f (snd k))) (map akey (varcs g))).
    { rewrite map_map. reflexivity. }
    rewrite E. apply NoDup_map_inj_on; auto.
    intros [a b] [c d] I1 I2 E'. simpl in E'. inversion E'.
    apply in_map_iff in I1. destruct I1 as (e1 & E1 & I1). apply in_map_iff in I2. destruct I2 as (e2 & E2 & I2).
    unfold akey in E1, E2. inversion E1; inversion E2; subst.
    destruct (He _ I1), (He _ I2). f_equal; apply Hf; auto.
  - intros e I. unfold relabel in I; simpl in I. apply in_map_iff in I. destruct I as (e0 & <- & I).
    rewrite node_ids_relabel. destruct (He _ I). unfold asrc, adst; simpl. split; apply in_map; auto.
Qed.

(* ---------------- presentation equality ---------------- *)
Lemma geq_refl g : geq g g.
Proof. split; auto. Qed.
Lemma geq_sym g h : geq g h -> geq h g.
Proof. intros [H1 H2]. split; apply Permutation_sym; auto. Qed.
Lemma geq_trans g h k : geq g h -> geq h k -> geq g k.
Proof. intros [H1 H2] [H3 H4]. split; eapply perm_trans; eauto. Qed.
Lemma geq_relabel f g h : geq g h -> geq (relabel f g) (relabel f h).
Proof. intros [H1 H2]. split; unfold relabel; simpl; apply Permutation_map; auto. Qed.
Lemma geq_node_ids g h : geq g h -> Permutation (node_ids g) (node_ids h).
Proof. intros [H1 _]. unfold node_ids. apply Permutation_map. auto. Qed.
Lemma geq_wf g h : geq g h -> wf g -> wf h.
Proof.
  intros Hg (Hn & Ha & He). pose proof (geq_node_ids g h Hg) as Hp. destruct Hg as [H1 H2]. split; [|split].
  - eapply Permutation_NoDup; eauto.
  - eapply Permutation_NoDup; [apply Permutation_map; exact H2|auto].
  - intros e I. apply (Permutation_in _ (Permutation_sym H2)) in I. destruct (He _ I).
    split; eapply Permutation_in; eauto.
Qed.

Lemma kind_of_l_in l v k : NoDup (map fst l) -> In (v, k) l -> kind_of_l l v = k.
Proof.
  induction l as [|[u k'] l IH]; simpl; intros Hnd I; [contradiction|].
  inversion Hnd; subst. destruct I as [E|I].
  - inversion E; subst. rewrite N.eqb_refl. auto.
  - destruct (N.eqb_spec u v) as [->|Hne]; auto.
    exfalso. apply H1. apply in_map_iff. exists (v, k). auto.
Qed.
Lemma kind_of_l_notin l v : ~ In v (map fst l) -> kind_of_l l v = NONE.
Proof.
  induction l as [|[u k'] l IH]; simpl; intros Hn; auto.
  destruct (N.eqb_spec u v) as [->|Hne]; [exfalso; auto|auto].
Qed.
Lemma in_map_fst_ex {A B} (l : list (A * B)) v : In v (map fst l) -> exists k, In (v, k) l.
Proof. intros I. apply in_map_iff in I. destruct I as ([a b] & <- & I). eauto. Qed.

Lemma geq_kind_of g h v : wf g -> geq g h -> kind_of h v = kind_of g v.
Proof.
  intros Hw Hg. pose proof (geq_wf _ _ Hg Hw) as Hw'. destruct Hg as [H1 _]. unfold kind_of.
  destruct (in_dec N.eq_dec v (node_ids g)) as [I|I].
  - destruct (in_map_fst_ex _ _ I) as (k & Ik).
    rewrite (kind_of_l_in (vnodes g) v k); [|apply Hw|auto].
    apply kind_of_l_in; [apply Hw'|]. eapply Permutation_in; eauto.
  - rewrite (kind_of_l_notin (vnodes g)); auto. apply kind_of_l_notin.
    intro I'. apply I. eapply Permutation_in; [apply Permutation_sym, Permutation_map; exact H1|auto].
Qed.

Lemma find_arc_l_in l u v a : NoDup (map akey l) -> In (u, v, a) l -> find_arc_l l u v = Some a.
Proof.
  induction l as [|e l IH]; simpl; intros Hnd I; [contradiction|].
  inversion Hnd; subst. destruct I as [E|I].
  - subst e. unfold asrc, adst, aattr. simpl. rewrite !N.eqb_refl. auto.
  - destruct (N.eqb (asrc e) u && N.eqb (adst e) v) eqn:E; auto.
    apply andb_prop in E. destruct E as [E1 E2]. apply N.eqb_eq in E1, E2.
    exfalso. apply H1. apply in_map_iff. exists (u, v, a). split; auto. unfold akey, asrc, adst in *. simpl. subst. destruct e as [[? ?] ?]; auto.
Qed.
Lemma find_arc_l_some l u v a : find_arc_l l u v = Some a -> In (u, v, a) l.
Proof.
  induction l as [|e l IH]; simpl; intros H; [discriminate|].
  destruct (N.eqb (asrc e) u && N.eqb (adst e) v) eqn:E; auto.
  apply andb_prop in E. destruct E as [E1 E2]. apply N.eqb_eq in E1, E2. inversion H. left.
  destruct e as [[? ?] ?]. unfold asrc, adst, aattr in *. simpl in *. subst. auto.
Qed.
Lemma geq_find_arc g h u v : wf g -> geq g h -> find_arc h u v = find_arc g u v.
Proof.
  intros Hw Hg. pose proof (geq_wf _ _ Hg Hw) as Hw'. destruct Hg as [_ H2]. unfold find_arc.
  destruct (find_arc_l (varcs g) u v) as [a|] eqn:E.
  - apply find_arc_l_some in E. apply find_arc_l_in; [apply Hw'|]. eapply Permutation_in; eauto.
  - destruct (find_arc_l (varcs h) u v) as [a|] eqn:E'; auto.
    apply find_arc_l_some in E'. apply (Permutation_in _ (Permutation_sym H2)) in E'.
    rewrite (find_arc_l_in _ _ _ a (proj1 (proj2 Hw)) E') in E. discriminate.
Qed.

(* ---------------- isomorphism is an equivalence on well-formed views ---------------- *)
Lemma relabel_comp f1 f2 g : relabel f2 (relabel f1 g) = relabel (fun v => f2 (f1 v)) g.
Proof. unfold relabel. simpl. rewrite !map_map. reflexivity. Qed.
Lemma relabel_ext f f' g : wf g -> (forall v, In v (node_ids g) -> f v = f' v) -> relabel f g = relabel f' g.
Proof.
  intros (_ & _ & He) H. unfold relabel. f_equal.
  - apply map_ext_in. intros [v k] I. simpl. rewrite H; auto. apply in_map_iff. exists (v, k). auto.
  - apply map_ext_in. intros e I. destruct (He _ I). rewrite !H; auto.
Qed.
Lemma relabel_id g : relabel (fun v => v) g = g.
Proof.
  unfold relabel. destruct g as [ns es]. simpl. f_equal.
  - rewrite <- (map_id ns) at 2. apply map_ext. intros [? ?]; auto.
  - rewrite <- (map_id es) at 2. apply map_ext. intros [[? ?] ?]; auto.
Qed.

Lemma geq_iso g h : geq g h -> iso g h.
Proof. intros H. exists (fun v => v). split; [intros x y _ _ E; exact E|]. rewrite relabel_id. auto. Qed.

Definition finv (f : N -> N) (l : list N) (y : N) : N :=
  match find (fun v => N.eqb (f v) y) l with Some v => v | None => y end.
Lemma finv_left f l v : inj_on f l -> In v l -> finv f l (f v) = v.
Proof.
  intros Hf Hv. unfold finv. destruct (find (fun v0 => N.eqb (f v0) (f v)) l) as [w|] eqn:E.
  - apply find_some in E. destruct E as [Hw E]. apply N.eqb_eq in E. apply Hf; auto.
  - exfalso. apply (find_none _ _ E) in Hv. rewrite N.eqb_refl in Hv. discriminate.
Qed.

Lemma iso_sym g h : wf g -> iso g h -> iso h g.
Proof.
  intros Hw (f & Hf & Hg). exists (finv f (node_ids g)).
  pose proof (geq_node_ids _ _ Hg) as Hp. rewrite node_ids_relabel in Hp.
  split.
  - intros x y Hx Hy E.
    apply (Permutation_in _ (Permutation_sym Hp)) in Hx, Hy. apply in_map_iff in Hx, Hy.
    destruct Hx as (a & <- & Ha), Hy as (b & <- & Hb). rewrite !finv_left in E; auto. subst. auto.
  - eapply geq_trans; [apply geq_relabel; apply geq_sym; exact Hg|].
    rewrite relabel_comp. rewrite (relabel_ext _ (fun v => v) g Hw); [rewrite relabel_id; apply geq_refl|].
    intros v Hv. apply finv_left; auto.
Qed.

Lemma iso_trans g h k : iso g h -> iso h k -> iso g k.
Proof.
  intros (f1 & H1 & G1) (f2 & H2 & G2). exists (fun v => f2 (f1 v)).
  pose proof (geq_node_ids _ _ G1) as Hp. rewrite node_ids_relabel in Hp.
  split.
  - intros x y Hx Hy E. apply H1; auto. apply H2; auto; eapply Permutation_in; try exact Hp; apply in_map; auto.
  - rewrite <- relabel_comp. eapply geq_trans; [apply geq_relabel; exact G1|exact G2].
Qed.

(* ---------------- the canonical numbering ---------------- *)
Lemma last_pos_notin v l : forall i cur, ~ In v l -> last_pos v l i cur = cur.
Proof.
  induction l as [|w l IH]; simpl; intros i cur Hn; auto.
  destruct (N.eqb_spec w v) as [->|Hne]; [exfalso; auto|]. apply IH. auto.
Qed.
Lemma last_pos_split v l1 l2 : forall i cur, ~ In v l2 -> last_pos v (l1 ++ v :: l2) i cur = i + length l1 + 1.
Proof.
  induction l1 as [|w l1 IH]; simpl; intros i cur Hn.
  - rewrite N.eqb_refl. rewrite last_pos_notin; auto. lia.
  - rewrite IH; auto. lia.
Qed.
Lemma cid_split v l1 l2 : ~ In v l2 -> cid (l1 ++ v :: l2) v = N.of_nat (S (length l1)).
Proof. intros H. unfold cid. rewrite last_pos_split; auto. f_equal. lia. Qed.

Lemma cid_tail pre r : NoDup r -> map (cid (pre ++ r)) r = map N.of_nat (seq (S (length pre)) (length r)).
Proof.
  revert pre. induction r as [|x r IH]; intros pre Hnd; simpl; auto.
  inversion Hnd; subst. f_equal.
  - apply cid_split. auto.
  - replace (pre ++ x :: r) with ((pre ++ [x]) ++ r) by (rewrite <- app_assoc; reflexivity).
    rewrite IH; auto. rewrite app_length. simpl. replace (length pre + 1) with (S (length pre)) by lia. reflexivity.
Qed.

Lemma NoDup_map_inj_inv {A B} (f : A -> B) l : NoDup (map f l) -> forall x y, In x l -> In y l -> f x = f y -> x = y.
Proof.
  induction l as [|a l IH]; simpl; intros Hnd x y Hx Hy E; [contradiction|].
  inversion Hnd; subst.
  destruct Hx as [->|Hx], Hy as [->|Hy]; auto.
  - exfalso. apply H1. rewrite E. apply in_map. auto.
  - exfalso. apply H1. rewrite <- E. apply in_map. auto.
Qed.

Lemma NoDup_seq_N a n : NoDup (map N.of_nat (seq a n)).
Proof. apply NoDup_map_inj_on; [|apply seq_NoDup]. intros x y _ _ E. lia. Qed.

Lemma cid_inj_on pre r nodes : NoDup r -> Permutation r nodes -> inj_on (cid (pre ++ r)) nodes.
Proof.
  intros Hnd Hp x y Hx Hy. apply (Permutation_in _ (Permutation_sym Hp)) in Hx, Hy.
  apply (NoDup_map_inj_inv (cid (pre ++ r)) r); auto. rewrite cid_tail; auto. apply NoDup_seq_N.
Qed.
Lemma cid_range pre r nodes : NoDup r -> Permutation r nodes ->
  Permutation (map (cid (pre ++ r)) nodes) (map N.of_nat (seq (S (length pre)) (length nodes))).
Proof.
  intros Hnd Hp. rewrite <- (Permutation_length Hp), <- (cid_tail pre r Hnd). apply Permutation_map. apply Permutation_sym. auto.
Qed.

Lemma Forall2_impl' {A B} (R R' : A -> B -> Prop) l l' : (forall a b, R a b -> R' a b) -> Forall2 R l l' -> Forall2 R' l l'.
Proof. intros H. induction 1; constructor; auto. Qed.

(** Insert-or-update on a list read as a dictionary through [key] (networkx add_node / add_edge, a Python dict assignment):
    [upd] leaves the keys where they are and appends [k0] when it is absent.  The model's set_node, ensure_node, set_arc,
    ensure_arc, upd_arc and dict_set are all of this kind. *)
Section Upsert.
Variables (A K : Type) (key : A -> K) (k0 : K) (upd : list A -> list A).
Definition upsert : Prop :=
  map key (upd []) = [k0] /\
  forall e r, map key (upd (e :: r)) = key e :: map key r /\ key e = k0 \/
              map key (upd (e :: r)) = key e :: map key (upd r) /\ key e <> k0.
Hypothesis Hupd : upsert.

Lemma upsert_keys_in l x : In x (map key (upd l)) <-> x = k0 \/ In x (map key l).
Proof.
  destruct Hupd as [Hnil Hcons]. induction l as [|e r IH].
  - rewrite Hnil. simpl. split; intros [H|[]]; auto.
  - destruct (Hcons e r) as [[-> E]|[-> E]]; simpl.
    + split; [auto|intros [->|H]; auto].
    + rewrite IH. split; (intros [H|[H|H]]; auto).
Qed.
Lemma upsert_keys_nodup l : NoDup (map key l) -> NoDup (map key (upd l)).
Proof.
  destruct Hupd as [Hnil Hcons]. induction l as [|e r IH]; intros H.
  - rewrite Hnil. constructor; [intros []|constructor].
  - inversion H; subst. destruct (Hcons e r) as [[-> E]|[-> E]]; [exact H|].
    constructor; [|apply IH; assumption]. rewrite upsert_keys_in. intros [E'|I]; [congruence|contradiction].
Qed.
End Upsert.

Lemma akey_eqb e u v : N.eqb (asrc e) u && N.eqb (adst e) v = true <-> akey e = (u, v).
Proof.
  unfold akey. rewrite andb_true_iff, !N.eqb_eq. split; [intros [-> ->]; auto|intros E; inversion E; auto].
Qed.
