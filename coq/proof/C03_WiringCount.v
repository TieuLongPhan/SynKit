(** C03 — how often each atom is used by the pairing of _explicit_h: a donor gives exactly its hydrogen surplus, a
    recipient takes at most its deficit (exactly, when its group is balanced), whatever the visiting order of the
    group. *)
From Coq Require Import List NArith ZArith Bool Lia.
From SK Require Import lib.Tok lib.LGraph model.C03_Model model.C03_Order proof.C03_Proof proof.C03_Glue proof.C03_ExplicitH
                       proof.C03_ExplicitShape proof.C03_ExplicitTotal proof.C03_Wiring.
Import ListNotations.
Local Open Scope Z_scope.

Lemma occurrences_app n l1 l2 : occurrences n (l1 ++ l2) = occurrences n l1 + occurrences n l2.
Proof. unfold occurrences. rewrite filter_app, app_length. lia. Qed.
Lemma occurrences_cons n x l : occurrences n (x :: l) = (if N.eqb n x then 1 else 0) + occurrences n l.
Proof. unfold occurrences. simpl. destruct (N.eqb n x); simpl length; lia. Qed.
Lemma occurrences_nil n : occurrences n [] = 0.
Proof. reflexivity. Qed.
Lemma occurrences_nonneg n l : 0 <= occurrences n l.
Proof. unfold occurrences. lia. Qed.
Lemma occurrences_notin n l : ~ In n l -> occurrences n l = 0.
Proof.
  unfold occurrences. induction l as [|x r IH]; simpl; intros H; [reflexivity|].
  destruct (N.eqb_spec n x); [subst; tauto|]. apply IH. tauto.
Qed.

(** capacity of a recipient in the working list *)
Fixpoint capof (rs : list (N * Z)) (r : N) : Z :=
  match rs with [] => 0 | (x, c) :: rest => if N.eqb r x then c else capof rest r end.

Lemma take_recip_cap rs : forall x rs', NoDup (map fst rs) -> take_recip rs = Some (x, rs') ->
  forall r, capof rs' r = capof rs r - (if N.eqb r x then 1 else 0).
Proof.
  induction rs as [|[y c] rest IH]; simpl; intros x rs' Hnd H r; [discriminate|].
  inversion Hnd as [|? ? N1 N2]; subst.
  destruct (0 <? c).
  - inversion H; subst. simpl. destruct (N.eqb r x); lia.
  - destruct (take_recip rest) as [[x' rest']|] eqn:E; [|discriminate]. inversion H; subst. simpl.
    destruct (take_recip_spec rest x rest' E) as [Ix _].
    destruct (N.eqb_spec r y) as [->|Ne].
    + destruct (N.eqb_spec y x); [subst; contradiction|]. lia.
    + exact (IH x rest' N2 eq_refl r).
Qed.

Lemma donate_count d k : forall rs acc rs' acc', NoDup (map fst rs) -> donate d k rs acc = Some (rs', acc') ->
  (forall x, occurrences x (map fst acc') = occurrences x (map fst acc) + (if N.eqb x d then Z.of_nat k else 0)) /\
  (forall r, occurrences r (map snd acc') - occurrences r (map snd acc) = capof rs r - capof rs' r) /\
  NoDup (map fst rs').
Proof.
  induction k as [|k IH]; intros rs acc rs' acc' Hnd H.
  - simpl in H. inversion H; subst. split; [|split; [|exact Hnd]].
    + intros x. destruct (N.eqb x d); change (Z.of_nat 0) with 0; rewrite Z.add_0_r; reflexivity.
    + intros r. rewrite !Z.sub_diag. reflexivity.
  - cbn [donate] in H. destruct (take_recip rs) as [[r0 rs1]|] eqn:E; [|discriminate].
    destruct (take_recip_spec rs r0 rs1 E) as [_ Em].
    assert (Hnd1 : NoDup (map fst rs1)) by (rewrite Em; exact Hnd).
    destruct (IH _ _ _ _ Hnd1 H) as (A & B & C). split; [|split; [|exact C]].
    + intros x. rewrite A, map_app, occurrences_app. cbn [map fst]. rewrite occurrences_cons, occurrences_nil.
      rewrite Nat2Z.inj_succ. destruct (N.eqb x d); lia.
    + intros r. specialize (B r). rewrite map_app, occurrences_app in B. cbn [map snd] in B. rewrite occurrences_cons, occurrences_nil in B.
      rewrite (take_recip_cap rs r0 rs1 Hnd E r) in B. lia.
Qed.

Definition given (dl : N -> Z) (ds : list N) (x : N) : Z := if mem x ds then Z.of_nat (Z.to_nat (dl x)) else 0.

Lemma donor_fold_count dl ds : forall rs acc rs' acc', NoDup ds -> NoDup (map fst rs) ->
  fold_left (donor_step dl) ds (Some (rs, acc)) = Some (rs', acc') ->
  (forall x, occurrences x (map fst acc') = occurrences x (map fst acc) + given dl ds x) /\
  (forall r, occurrences r (map snd acc') - occurrences r (map snd acc) = capof rs r - capof rs' r).
Proof.
  induction ds as [|d r IH]; cbn [fold_left]; intros rs acc rs' acc' Hd Hnd H.
  - inversion H; subst. unfold given. simpl. split; intros; lia.
  - inversion Hd as [|? ? D1 D2]; subst.
    unfold donor_step at 2 in H. destruct (donate d (Z.to_nat (dl d)) rs acc) as [[rs1 acc1]|] eqn:E;
      [|rewrite donor_fold_none in H; discriminate].
    destruct (donate_count d _ _ _ _ _ Hnd E) as (A1 & B1 & C1). destruct (IH _ _ _ _ D2 C1 H) as (A2 & B2). split.
    + intros x. rewrite A2, A1. unfold given. simpl. destruct (N.eqb_spec x d) as [->|Ne].
      * destruct (mem d r) eqn:Em; [apply mem_spec in Em; contradiction|]. simpl. lia.
      * simpl. lia.
    + intros x. specialize (B1 x). specialize (B2 x). lia.
Qed.

Lemma capof_nonneg rs r : caps_nonneg rs -> 0 <= capof rs r.
Proof. induction 1 as [|[x c] l H1 H2 IH]; simpl; [lia|]. destruct (N.eqb r x); simpl in *; lia. Qed.
Lemma capof_map (f : N -> Z) l r : capof (map (fun n => (n, f n)) l) r = if mem r l then f r else 0.
Proof.
  induction l as [|x rest IH]; simpl; [reflexivity|]. destruct (N.eqb_spec r x) as [->|]; simpl; [reflexivity|exact IH].
Qed.

Lemma mem_filter (f : N -> bool) x l : mem x (filter f l) = mem x l && f x.
Proof.
  induction l as [|a r IH]; simpl; [reflexivity|].
  destruct (N.eqb_spec x a) as [->|Ne]; destruct (f a) eqn:Ea; simpl; rewrite ?N.eqb_refl, IH, ?Ea, ?andb_false_r; try reflexivity.
  destruct (N.eqb_spec x a); [contradiction|reflexivity].
Qed.

Lemma capof_zero rs r : caps_nonneg rs -> capsum rs = 0 -> capof rs r = 0.
Proof.
  induction 1 as [|[x c] l H1 H2 IH]; simpl; intros Hs; [reflexivity|]. simpl in H1.
  assert (0 <= capsum l) by (clear - H2; induction H2 as [|[y d] l' K1 K2 IH']; simpl in *; lia).
  destruct (N.eqb r x); [lia|apply IH; lia].
Qed.

(** one component: the capacities [rs'] that the pairing leaves to the recipients account for every hydrogen taken *)
Lemma migrations_of_ledger T comp ms : NoDup comp -> migrations_of T comp = Some ms ->
  exists rs', caps_nonneg rs' /\
    capsum rs' = sumF (fun n => - dl_of T n) (filter (fun n => dl_of T n <? 0) comp) - sumF (dl_of T) (filter (fun n => 0 <? dl_of T n) comp) /\
    (forall x, occurrences x (map fst ms) = if mem x comp then Z.max 0 (dl_of T x) else 0) /\
    (forall r, occurrences r (map snd ms) = (if mem r comp then Z.max 0 (- dl_of T r) else 0) - capof rs' r).
Proof.
  intros Hnd. rewrite migrations_of_unfold.
  set (rs := map (fun n => (n, - dl_of T n)) (filter (fun n => dl_of T n <? 0) comp)).
  assert (Hn : caps_nonneg rs).
  { unfold caps_nonneg, rs. apply Forall_forall. intros [n c] I. apply in_map_iff in I. destruct I as (n' & E' & I). inversion E'; subst.
    apply filter_In in I. destruct I as [_ I]. apply Z.ltb_lt in I. simpl. lia. }
  assert (Hrs : NoDup (map fst rs)).
  { unfold rs. rewrite map_map. simpl. rewrite map_id. apply NoDup_filter. exact Hnd. }
  pose proof (donor_fold_total (dl_of T) (filter (fun n => 0 <? dl_of T n) comp) rs [] Hn) as Ht.
  pose proof (fun rs' acc' => donor_fold_count (dl_of T) (filter (fun n => 0 <? dl_of T n) comp) rs [] rs' acc' (NoDup_filter _ Hnd) Hrs) as Hc.
  destruct (fold_left _ _ _) as [[rs' acc]|]; [|discriminate]. intros [= <-].
  destruct Ht as [Hn' Hs]. destruct (Hc rs' acc eq_refl) as (A & B). exists rs'. split; [exact Hn'|]. split; [|split].
  - rewrite Hs, need_sumF. unfold rs. rewrite (capsum_sumF (fun n => - dl_of T n)). reflexivity.
  - intros x. rewrite A. cbn [map]. rewrite occurrences_nil. unfold given. rewrite mem_filter.
    destruct (mem x comp); simpl; [|reflexivity]. destruct (Z.ltb_spec 0 (dl_of T x)); lia.
  - intros r. specialize (B r). cbn [map] in B. rewrite occurrences_nil in B.
    unfold rs in B. rewrite (capof_map (fun n => - dl_of T n)), mem_filter in B.
    destruct (mem r comp); simpl in B; [|lia]. destruct (Z.ltb_spec (dl_of T r) 0); lia.
Qed.

Lemma migrations_of_count T comp ms : NoDup comp -> migrations_of T comp = Some ms ->
  (forall x, occurrences x (map fst ms) = if mem x comp then Z.max 0 (dl_of T x) else 0) /\
  (forall r, 0 <= occurrences r (map snd ms) <= if mem r comp then Z.max 0 (- dl_of T r) else 0).
Proof.
  intros Hnd H. destruct (migrations_of_ledger T comp ms Hnd H) as (rs' & Hn' & _ & A & B). split; [exact A|].
  intros r. pose proof (capof_nonneg rs' r Hn'). pose proof (occurrences_nonneg r (map snd ms)). rewrite B in *. lia.
Qed.

(** a balanced group is paired off completely: every recipient takes exactly its deficit *)
Lemma migrations_of_exact T comp ms : NoDup comp -> comp_exactb T comp = true -> migrations_of T comp = Some ms ->
  forall r, occurrences r (map snd ms) = if mem r comp then Z.max 0 (- dl_of T r) else 0.
Proof.
  intros Hnd Hex H r. destruct (migrations_of_ledger T comp ms Hnd H) as (rs' & Hn' & Hs & _ & B).
  apply Z.eqb_eq in Hex. rewrite B, (capof_zero rs' r Hn') by lia. lia.
Qed.

(** * all components together *)
Lemma disj_later x c r : Forall (disj c) r -> mem x c = true -> existsb (mem x) r = false.
Proof.
  intros D Hm. apply mem_spec in Hm. destruct (existsb (mem x) r) eqn:Ee; [|reflexivity]. exfalso.
  apply existsb_exists in Ee. destruct Ee as (c2 & I2 & M2). apply mem_spec in M2.
  rewrite Forall_forall in D. exact (D c2 I2 x Hm M2).
Qed.

Section AnyOrder.
  Variable ord : list N -> list N.
  Hypothesis ord_in : forall l x, In x (ord l) <-> In x l.
  Hypothesis ord_nodup : forall l, NoDup l -> NoDup (ord l).

  Lemma mem_ord x l : mem x (ord l) = mem x l.
  Proof. apply eq_true_iff_eq. rewrite !mem_spec. apply ord_in. Qed.

  Lemma comp_foldo_count T cs : good_cs cs -> forall acc res, fold_left (comp_step_ord ord T) cs (Some acc) = Some res ->
    forall x,
      occurrences x (map fst res) = occurrences x (map fst acc) + (if existsb (mem x) cs then Z.max 0 (dl_of T x) else 0) /\
      0 <= occurrences x (map snd res) - occurrences x (map snd acc) <= (if existsb (mem x) cs then Z.max 0 (- dl_of T x) else 0).
  Proof.
    induction cs as [|c r IH]; intros [G1 G2] acc res H x.
    - simpl in H. inversion H; subst. simpl. lia.
    - cbn [fold_left] in H. unfold comp_step_ord at 2 in H.
      destruct (migrations_of T (ord c)) as [ms|] eqn:E; [|rewrite comp_foldo_none in H; discriminate].
      inversion G1 as [|? ? N1 N2]; subst. inversion G2 as [|? ? D1 D2]; subst.
      destruct (migrations_of_count T (ord c) ms (ord_nodup c N1) E) as [A B].
      destruct (IH (conj N2 D2) _ _ H x) as [A' B']. specialize (A x). specialize (B x). rewrite mem_ord in A, B.
      rewrite !map_app, !occurrences_app in A', B'. cbn [existsb].
      destruct (mem x c) eqn:Ec.
      + rewrite (disj_later x c r D1 Ec) in A', B'. cbn [orb]. lia.
      + cbn [orb]. destruct (existsb (mem x) r); lia.
  Qed.

  Theorem explicit_h_ord_usage T T' ms : explicit_h_ord ord T = Some (T', ms) ->
    forall x,
      occurrences x (map fst ms) = (if grouped T x then Z.max 0 (dl_of T x) else 0) /\
      0 <= occurrences x (map snd ms) <= (if grouped T x then Z.max 0 (- dl_of T x) else 0).
  Proof.
    intros H x. destruct (explicit_h_ord_unfold ord T T' ms H) as (Hm & _). unfold all_migrations_ord in Hm.
    destruct (comp_foldo_count T _ (components_good _ (pair_to_nodes_nodup T)) [] ms Hm x) as [A B].
    cbn [map] in A, B. rewrite occurrences_nil in A, B. unfold grouped. split; lia.
  Qed.

  Lemma comp_foldo_exact T cs : good_cs cs -> forallb (fun c => comp_exactb T (sort_N c)) cs = true ->
    forall acc res, fold_left (comp_step_ord ord T) cs (Some acc) = Some res ->
    forall x, occurrences x (map snd res) = occurrences x (map snd acc) + (if existsb (mem x) cs then Z.max 0 (- dl_of T x) else 0).
  Proof.
    induction cs as [|c r IH]; intros [G1 G2] Hex acc res H x.
    - simpl in H. inversion H; subst. simpl. lia.
    - cbn [fold_left] in H. unfold comp_step_ord at 2 in H. cbn [forallb] in Hex. apply andb_prop in Hex. destruct Hex as [Hex1 Hex2].
      destruct (migrations_of T (ord c)) as [ms|] eqn:E; [|rewrite comp_foldo_none in H; discriminate].
      inversion G1 as [|? ? N1 N2]; subst. inversion G2 as [|? ? D1 D2]; subst.
      rewrite <- (comp_exactb_perm T _ _ (ord_perm_sort ord ord_in ord_nodup c N1)) in Hex1.
      pose proof (migrations_of_exact T (ord c) ms (ord_nodup c N1) Hex1 E x) as B. rewrite mem_ord in B.
      pose proof (IH (conj N2 D2) Hex2 _ _ H x) as B'. rewrite map_app, occurrences_app in B'. cbn [existsb].
      destruct (mem x c) eqn:Ec.
      + rewrite (disj_later x c r D1 Ec) in B'. cbn [orb]. lia.
      + cbn [orb]. destruct (existsb (mem x) r); lia.
  Qed.

  Theorem explicit_h_ord_usage_exact T T' ms : explicit_h_ord ord T = Some (T', ms) -> pairs_exactb T = true ->
    forall x, occurrences x (map snd ms) = (if grouped T x then Z.max 0 (- dl_of T x) else 0).
  Proof.
    intros H Hex x. destruct (explicit_h_ord_unfold ord T T' ms H) as (Hm & _). unfold all_migrations_ord in Hm.
    pose proof (comp_foldo_exact T _ (components_good _ (pair_to_nodes_nodup T)) Hex [] ms Hm x) as B.
    cbn [map] in B. rewrite occurrences_nil in B. unfold grouped. lia.
  Qed.
End AnyOrder.

Theorem explicit_h_usage T T' ms : explicit_h T = Some (T', ms) ->
  forall x,
    occurrences x (map fst ms) = (if grouped T x then Z.max 0 (dl_of T x) else 0) /\
    0 <= occurrences x (map snd ms) <= (if grouped T x then Z.max 0 (- dl_of T x) else 0).
Proof. rewrite <- explicit_h_ord_sort. exact (explicit_h_ord_usage sort_N (fun l x => in_sort_N_iff x l) nodup_sort_N T T' ms). Qed.

Theorem explicit_h_usage_exact T T' ms : explicit_h T = Some (T', ms) -> pairs_exactb T = true ->
  forall x, occurrences x (map snd ms) = (if grouped T x then Z.max 0 (- dl_of T x) else 0).
Proof. rewrite <- explicit_h_ord_sort. exact (explicit_h_ord_usage_exact sort_N (fun l x => in_sort_N_iff x l) nodup_sort_N T T' ms). Qed.

(** * which atoms are grouped: exactly those that carry a pair id *)
Lemma components_from_pt pt : forall c x, In c (components pt) -> In x c -> exists g, In g pt /\ In x (snd g).
Proof.
  apply (components_inv (fun cs => forall c x, In c cs -> In x c -> exists g, In g pt /\ In x (snd g))); [intros c x []|].
  intros cs g Ig Hc c x Ic Ix. unfold add_group in Ic. destruct Ic as [<-|Ic].
  - apply in_fold_union in Ix. destruct Ix as [Ix|(c1 & I1 & Ix)]; [eauto|]. apply filter_In in I1. exact (Hc c1 x (proj1 I1) Ix).
  - apply filter_In in Ic. exact (Hc c x (proj1 Ic) Ix).
Qed.

Lemma grouped_carries T x : grouped T x = true -> exists A pid, In (x, A) (gnodes T) /\ In pid (hp_of A).
Proof.
  unfold grouped. intros H. apply existsb_exists in H. destruct H as (c & Ic & Hm). apply mem_spec in Hm.
  destruct (components_from_pt _ c x Ic Hm) as ([pid ns] & Ig & Ix). cbn [snd] in Ix.
  destruct (pair_to_nodes_ok T pid ns x Ig Ix) as (A & HA & PA). exists A, pid. auto.
Qed.

(** conversely every atom that carries a pair id is in a group *)
Definition recorded (pt : list (N * list N)) (q a : N) : Prop := exists ns, In (q, ns) pt /\ In a ns.

Lemma pt_add_keeps pt pid n q a : recorded pt q a -> recorded (pt_add pt pid n) q a.
Proof.
  intros (ns & I & Ia). induction pt as [|[q0 ns0] r IH]; [destruct I|]. simpl.
  destruct (N.eqb_spec q0 pid) as [->|Ne].
  - destruct I as [I|I].
    + inversion I; subst. exists (if mem n ns then ns else ns ++ [n]). split; [left; reflexivity|].
      destruct (mem n ns); [exact Ia|apply in_or_app; auto].
    + exists ns. split; [right; exact I|exact Ia].
  - destruct I as [I|I].
    + inversion I; subst. exists ns. split; [left; reflexivity|exact Ia].
    + destruct (IH I) as (ns' & I' & Ia'). exists ns'. split; [right; exact I'|exact Ia'].
Qed.
Lemma pt_add_records pt pid n : recorded (pt_add pt pid n) pid n.
Proof.
  induction pt as [|[q0 ns0] r IH]; simpl.
  - exists [n]. simpl. auto.
  - destruct (N.eqb_spec q0 pid) as [->|Ne].
    + exists (if mem n ns0 then ns0 else ns0 ++ [n]). split; [left; reflexivity|].
      destruct (mem n ns0) eqn:E; [apply mem_spec; exact E|apply in_or_app; right; left; reflexivity].
    + destruct IH as (ns' & I' & Ia'). exists ns'. split; [right; exact I'|exact Ia'].
Qed.

Lemma pair_to_nodes_complete T x A pid : In (x, A) (gnodes T) -> In pid (hp_of A) -> recorded (pair_to_nodes T) pid x.
Proof.
  intros Ix Ip. unfold pair_to_nodes.
  apply (fold_left_reach _ (fun pt => recorded pt pid x) _ (x, A) Ix).
  - intros pt. cbn [fst snd]. apply (fold_left_reach _ (fun pt' => recorded pt' pid x) _ pid Ip); [intros; apply pt_add_records|].
    intros pt' q. apply pt_add_keeps.
  - intros pt p H. apply (fold_left_inv _ (fun pt' => recorded pt' pid x)); [|exact H]. intros pt' q _. apply pt_add_keeps.
Qed.

Lemma components_cover pt : forall g, In g pt -> exists c, In c (components pt) /\ incl (snd g) c.
Proof.
  intros g Ig. unfold components. apply (fold_left_reach _ (fun cs => exists c, In c cs /\ incl (snd g) c) _ g Ig).
  - intros cs. unfold add_group. eexists. split; [left; reflexivity|]. intros x Ix. apply in_fold_union. auto.
  - intros cs g' (c0 & I0 & S0). unfold add_group. destruct (inter (snd g') c0) eqn:E.
    + eexists. split; [left; reflexivity|]. intros x Ix. apply in_fold_union. right. exists c0. split; [apply filter_In; auto|exact (S0 x Ix)].
    + exists c0. split; [right; apply filter_In; rewrite E; auto|exact S0].
Qed.

Lemma carries_grouped T x A pid : In (x, A) (gnodes T) -> In pid (hp_of A) -> grouped T x = true.
Proof.
  intros Ix Ip. destruct (pair_to_nodes_complete T x A pid Ix Ip) as (ns & I & Ia).
  destruct (components_cover _ (pid, ns) I) as (c & Ic & Sc). unfold grouped. apply existsb_exists. exists c.
  split; [exact Ic|]. apply mem_spec. apply Sc. exact Ia.
Qed.

Theorem grouped_iff T x : grouped T x = true <-> exists A pid, In (x, A) (gnodes T) /\ In pid (hp_of A).
Proof. split; [apply grouped_carries|]. intros (A & pid & H1 & H2). exact (carries_grouped T x A pid H1 H2). Qed.
