(** C06 — non-interference over whole histories: two runs of the same script from states that agree on
    everything except the value of one node-attribute name [k] answer every search that does not select [k]
    identically - whatever edits (of [k] or of anything else) are interleaved. *)
From Coq Require Import List NArith Bool Arith Lia.
From SK Require Import lib.LGraph model.C06_Model model.C06_Attrs model.C06_Hist lib.C06_HistSpec proof.C06_All proof.C06_Hist.
Import ListNotations.

(** ---------- dictionaries ---------- *)
Lemma dict_set_keys k v d k' : In k' (map fst (dict_set k v d)) -> k' = k \/ In k' (map fst d).
Proof.
  induction d as [|[k0 v0] r IH]; simpl.
  - intros [E|[]]. left. symmetry. exact E.
  - destruct (N.eqb_spec k0 k) as [->|Hne]; simpl; intros [E|I]; auto.
    destruct (IH I); auto.
Qed.

Lemma dict_set_ok k v d : dict_ok d -> dict_ok (dict_set k v d).
Proof.
  unfold dict_ok. induction d as [|[k0 v0] r IH]; simpl; intros Hnd.
  - constructor; [intros []|constructor].
  - inversion Hnd as [|? ? Hx Hr]; subst.
    destruct (N.eqb_spec k0 k) as [->|Hne]; simpl; [constructor; assumption|].
    constructor; [|exact (IH Hr)]. intros Hin. destruct (dict_set_keys _ _ _ _ Hin) as [E|Hin']; [apply Hne; exact E|exact (Hx Hin')].
Qed.

Lemma dict_del_keys k d k' : In k' (map fst (dict_del k d)) -> In k' (map fst d).
Proof.
  induction d as [|[k0 v0] r IH]; simpl; [intros []|].
  destruct (N.eqb k0 k); simpl; [intros Hin; right; exact Hin|].
  intros [E|Hin]; [left; exact E|right; exact (IH Hin)].
Qed.

Lemma dict_del_ok k d : dict_ok d -> dict_ok (dict_del k d).
Proof.
  unfold dict_ok. induction d as [|[k0 v0] r IH]; simpl; intros Hnd; [constructor|].
  inversion Hnd as [|? ? Hx Hr]; subst.
  destruct (N.eqb k0 k); simpl; [exact Hr|].
  constructor; [|exact (IH Hr)]. intros Hin. apply Hx. exact (dict_del_keys _ _ _ Hin).
Qed.

Lemma aget_notin k d : ~ In k (map fst d) -> aget k d = 0%N.
Proof.
  unfold aget. induction d as [|[k0 v0] r IH]; simpl; [reflexivity|]. intros Hn.
  destruct (N.eqb_spec k k0) as [->|Hne]; [exfalso; apply Hn; left; reflexivity|].
  apply IH. intros Hin. apply Hn. right. exact Hin.
Qed.

Lemma dict_del_removes k d : dict_ok d -> ~ In k (map fst (dict_del k d)).
Proof.
  unfold dict_ok. induction d as [|[k0 v0] r IH]; simpl; intros Hnd; [intros []|].
  inversion Hnd as [|? ? Hx Hr]; subst.
  destruct (N.eqb_spec k0 k) as [->|Hne]; simpl; [exact Hx|].
  intros [E|Hin]; [apply Hne; exact E|exact (IH Hr Hin)].
Qed.

Lemma aget_dict_del_same k d : dict_ok d -> aget k (dict_del k d) = 0%N.
Proof. intros Hd. apply aget_notin. apply dict_del_removes. exact Hd. Qed.

(** two dictionaries that agree off the key [k] *)
Definition dict_agree (k : N) (d1 d2 : rattrs) : Prop :=
  dict_ok d1 /\ dict_ok d2 /\ forall k', k' <> k -> aget k' d1 = aget k' d2.

Lemma dict_agree_refl k d : dict_ok d -> dict_agree k d d.
Proof. intros Hd. repeat split; assumption. Qed.

Lemma dict_agree_set k k0 v d1 d2 : dict_agree k d1 d2 -> dict_agree k (dict_set k0 v d1) (dict_set k0 v d2).
Proof.
  intros (B & C & D). split; [apply dict_set_ok; exact B|split; [apply dict_set_ok; exact C|]].
  intros k' Hk'. destruct (N.eq_dec k' k0) as [->|Hne].
  - rewrite !aget_dict_set_same. reflexivity.
  - rewrite !aget_dict_set_other by exact Hne. exact (D k' Hk').
Qed.

Lemma dict_agree_del k k0 d1 d2 : dict_agree k d1 d2 -> dict_agree k (dict_del k0 d1) (dict_del k0 d2).
Proof.
  intros (B & C & D). split; [apply dict_del_ok; exact B|split; [apply dict_del_ok; exact C|]].
  intros k' Hk'. destruct (N.eq_dec k' k0) as [->|Hne].
  - rewrite !aget_dict_del_same by assumption. reflexivity.
  - rewrite !aget_dict_del_other by exact Hne. exact (D k' Hk').
Qed.

Lemma dict_agree_update k new : forall d1 d2, dict_agree k d1 d2 -> dict_agree k (dict_update new d1) (dict_update new d2).
Proof.
  unfold dict_update. induction new as [|[k0 v0] r IH]; intros d1 d2 Ha; simpl; [exact Ha|].
  apply IH. apply dict_agree_set. exact Ha.
Qed.

(** the edit of [k] itself *)
Lemma dict_agree_set_same k v d : dict_ok d -> dict_agree k (dict_set k v d) d.
Proof.
  intros Hd. split; [apply dict_set_ok; exact Hd|split; [exact Hd|]].
  intros k' Hk'. apply aget_dict_set_other. exact Hk'.
Qed.

Definition lab_agree (k : N) (l1 l2 : rnlab) : Prop := snd l1 = snd l2 /\ dict_agree k (fst l1) (fst l2).
Definition node_agree (k : N) (p1 p2 : N * rnlab) : Prop := fst p1 = fst p2 /\ lab_agree k (snd p1) (snd p2).

Lemma lab_agree_refl k l : dict_ok (fst l) -> lab_agree k l l.
Proof. intros Hd. split; [reflexivity|apply dict_agree_refl; exact Hd]. Qed.

(** [agree_off] is [node_agree] along the two node lists *)
Lemma agree_off_nodes k g1 g2 :
  agree_off k g1 g2 <-> gedges g1 = gedges g2 /\ Forall2 (node_agree k) (gnodes g1) (gnodes g2).
Proof. reflexivity. Qed.

Lemma Forall2_map_same {X} (R : X -> X -> Prop) (f : X -> X) l1 l2 :
  (forall a b, R a b -> R (f a) (f b)) -> Forall2 R l1 l2 -> Forall2 R (map f l1) (map f l2).
Proof. intros Hf Ha. induction Ha; simpl; constructor; auto. Qed.

Lemma Forall2_filter_same {X} (R : X -> X -> Prop) (q : X -> bool) l1 l2 :
  (forall a b, R a b -> q a = q b) -> Forall2 R l1 l2 -> Forall2 R (filter q l1) (filter q l2).
Proof.
  intros Hq Ha. induction Ha as [|a b l1 l2 Rab _ IH]; simpl; [constructor|].
  rewrite <- (Hq a b Rab). destruct (q a); [constructor|]; assumption.
Qed.

Lemma nodes_agree_ids k ns1 ns2 : Forall2 (node_agree k) ns1 ns2 -> map fst ns1 = map fst ns2.
Proof. intros Hf. induction Hf as [|p1 p2 l1 l2 [E _] _ IH]; simpl; [reflexivity|]. rewrite E, IH. reflexivity. Qed.

Lemma nodes_agree_map k u (f : rnlab -> rnlab) ns1 ns2 :
  (forall l1 l2, lab_agree k l1 l2 -> lab_agree k (f l1) (f l2)) -> Forall2 (node_agree k) ns1 ns2 ->
  Forall2 (node_agree k) (map (fun p => if N.eqb (fst p) u then (fst p, f (snd p)) else p) ns1)
                         (map (fun p => if N.eqb (fst p) u then (fst p, f (snd p)) else p) ns2).
Proof.
  intros Hf. apply Forall2_map_same. intros p1 p2 [E L]. rewrite <- E.
  destruct (N.eqb (fst p1) u); split; simpl; auto.
Qed.

Lemma nodes_agree_ensure k u ns1 ns2 :
  Forall2 (node_agree k) ns1 ns2 -> Forall2 (node_agree k) (ensure_node u ns1) (ensure_node u ns2).
Proof.
  intros Ha. unfold ensure_node. rewrite <- (nodes_agree_ids k ns1 ns2 Ha).
  destruct (LGraph.mem u (map fst ns1)); [exact Ha|].
  apply Forall2_app; [exact Ha|]. constructor; [|constructor].
  split; [reflexivity|]. apply lab_agree_refl. constructor.
Qed.

(** ---------- every edit preserves the agreement ---------- *)
Lemma agree_off_edit k side e g1 g2 : step_off k (HEdit side e) -> agree_off k g1 g2 ->
  agree_off k (apply_edit e g1) (apply_edit e g2).
Proof.
  intros Hs Ha. apply agree_off_nodes in Ha. destruct Ha as [Ee En]. apply agree_off_nodes.
  destruct e as [u k0 v n|u k0|a b k0 v|a b d|a b|u l|u]; cbn [apply_edit map_node map_edge gnodes gedges].
  - split; [exact Ee|]. apply nodes_agree_map; [|exact En]. intros l1 l2 [A D].
    split; [simpl; rewrite A; reflexivity|apply dict_agree_set; exact D].
  - split; [exact Ee|]. apply nodes_agree_map; [|exact En]. intros l1 l2 [A D].
    split; [simpl; rewrite A; reflexivity|apply dict_agree_del; exact D].
  - rewrite Ee. split; [reflexivity|exact En].
  - rewrite Ee. destruct (find_edge a b (gedges g2)); cbn [map_edge gnodes gedges]; rewrite ?Ee.
    + split; [reflexivity|exact En].
    + split; [reflexivity|]. apply nodes_agree_ensure. apply nodes_agree_ensure. exact En.
  - rewrite Ee. split; [reflexivity|exact En].
  - unfold node_ids. rewrite <- (nodes_agree_ids k _ _ En).
    destruct (LGraph.mem u (map fst (gnodes g1))); cbn [map_node gnodes gedges].
    + split; [exact Ee|]. apply nodes_agree_map; [|exact En]. intros l1 l2 [A D].
      split; [simpl; rewrite A; reflexivity|apply dict_agree_update; exact D].
    + split; [exact Ee|]. apply Forall2_app; [exact En|]. constructor; [|constructor].
      split; [reflexivity|]. apply lab_agree_refl. exact Hs.
  - rewrite Ee. split; [reflexivity|].
    apply (Forall2_filter_same _ (fun p => negb (N.eqb (fst p) u))); [|exact En]. intros p1 p2 [E _]. rewrite E. reflexivity.
Qed.

(** ---------- searches that do not select [k] cannot tell the two states apart ---------- *)
Lemma project_agree k swap na ea c g1 g2 : step_off k (HSearch swap na ea c) -> agree_off k g1 g2 ->
  project na ea g1 = project na ea g2.
Proof.
  intros Hn Ha. apply agree_off_nodes in Ha. destruct Ha as [Ee En]. unfold project. rewrite Ee. f_equal.
  induction En as [|p1 p2 l1 l2 (E & A & _ & _ & D) _ IH]; simpl; [reflexivity|].
  rewrite IH, E. unfold proj_n, hc. rewrite A. do 3 f_equal.
  apply map_ext_in. intros k' Hin. apply D. intros ->. exact (Hn Hin).
Qed.

Theorem hist_noninterference k : forall steps (H1 H2 P1 P2 : rgraph),
  agree_off k H1 H2 -> agree_off k P1 P2 -> Forall (step_off k) steps ->
  run_hist H1 P1 steps = run_hist H2 P2 steps.
Proof. exact (related_runs (agree_off k) (step_off k) (agree_off_edit k) (project_agree k)). Qed.

Lemma agree_off_refl k g : state_ok g -> agree_off k g g.
Proof.
  intros Hs. apply agree_off_nodes. split; [reflexivity|].
  induction Hs as [|p l Hp _ IH]; constructor; [|exact IH]. split; [reflexivity|apply lab_agree_refl; exact Hp].
Qed.

Lemma agree_off_set k u v n g : k <> HCOUNT_KEY -> state_ok g -> agree_off k (apply_edit (ESetNodeAttr u k v n) g) g.
Proof.
  intros Hk Hs. apply agree_off_nodes. cbn [apply_edit map_node gnodes gedges]. split; [reflexivity|].
  induction Hs as [|p l Hp _ IH]; simpl; constructor; [|exact IH].
  destruct (N.eqb (fst p) u); split; try reflexivity; [|apply lab_agree_refl; exact Hp].
  split; [simpl; destruct (N.eqb_spec k HCOUNT_KEY); [contradiction|reflexivity]|apply dict_agree_set_same; exact Hp].
Qed.

(** the instance the histories of the harness exercise: an in-place edit of [k] (not "hcount") on a host whose
    dictionaries are well formed, followed by ANY script in which no search selects [k] *)
Theorem hist_edit_never_seen k u v n host_side (H P : rgraph) steps :
  k <> HCOUNT_KEY -> state_ok H -> state_ok P -> Forall (step_off k) steps ->
  run_hist H P (HEdit host_side (ESetNodeAttr u k v n) :: steps) = run_hist H P steps.
Proof.
  intros Hk SH SP.
  apply (edit_never_seen (agree_off k) (step_off k) (agree_off_edit k) (project_agree k));
    auto using agree_off_refl, agree_off_set.
Qed.

(** ---------- non-vacuity: the script of [ex_hist_bond_moved] preceded by an edit of the unselected name 7 ---------- *)
Local Open Scope N_scope.
Definition script7 : list hstep :=
  [HSearch false [2] [3] comp_cfg; HEdit true (ERemoveEdge 1 2); HEdit true (EAddEdge 2 3 [(3, 2)]);
   HEdit true (ESetNodeAttr 0 7 5 0); HEdit false (EAddNode 13 ([(2, 1)], None)); HSearch true [2] [3] comp_cfg;
   HMutateResult; HSearch false [2] [3] comp_cfg].

Lemma state_ok_Hh : state_ok Hh /\ state_ok Ph.
Proof.
  unfold state_ok, dict_ok. split; repeat constructor; simpl; intuition.
Qed.

Lemma script7_off : Forall (step_off 7) script7.
Proof.
  unfold script7, dict_ok. repeat constructor; simpl; intuition; discriminate.
Qed.

Example ex_hist_never_seen :
  run_hist Hh Ph (HEdit true (ESetNodeAttr 2 7 9 0) :: script7) = run_hist Hh Ph script7 /\
  length (run_hist Hh Ph script7) = 3%nat /\
  (* ... while the same edit of the SELECTED name 2 changes the answers *)
  run_hist Hh Ph (HEdit true (ESetNodeAttr 2 2 9 0) :: script7) <> run_hist Hh Ph script7.
Proof.
  split; [|split].
  - apply (hist_edit_never_seen 7 2 9 0 true Hh Ph script7); [discriminate|exact (proj1 state_ok_Hh)|exact (proj2 state_ok_Hh)|exact script7_off].
  - vm_compute. reflexivity.
  - vm_compute. discriminate.
Qed.

(** ---------- the monitor flag of [run_history] implies the premises ---------- *)
Theorem hist_monitor (H P : rgraph) steps :
  state_okb H && state_okb P && forallb step_okb steps = true ->
  (state_ok H /\ Forall (fun e : N * N * rattrs => dict_ok (snd e)) (gedges H)) /\
  (state_ok P /\ Forall (fun e : N * N * rattrs => dict_ok (snd e)) (gedges P)) /\
  Forall (fun s => match s with
                   | HEdit _ (EAddNode _ l) => dict_ok (fst l)
                   | HEdit _ (EAddEdge _ _ d) => dict_ok d
                   | _ => True
                   end) steps.
Proof.
  rewrite !andb_true_iff. intros [[SH SP] SS]. unfold state_okb in SH, SP. rewrite andb_true_iff in SH, SP.
  destruct SH as [SH1 SH2], SP as [SP1 SP2]. unfold state_ok, dict_okb, dict_ok in *.
  rewrite forallb_forall in SH1, SH2, SP1, SP2, SS.
  split; [split|split; [split|]]; apply Forall_forall.
  1-4: intros x Hx; apply nodupb_spec; auto.
  intros s Hs. specialize (SS s Hs). destruct s as [side e| |]; simpl; trivial.
  destruct e; simpl; trivial; apply nodupb_spec; exact SS.
Qed.

Example ex_hist_monitor : state_okb Hh && state_okb Ph && forallb step_okb script7 = true.
Proof. vm_compute. reflexivity. Qed.
