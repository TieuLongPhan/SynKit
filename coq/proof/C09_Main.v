(** C09 — property-level theorems assembled from C09_Canon / C09_Equiv / C09_Valid / C09_Balance and the C08 facts
    about the canonical orders of the two back-ends. *)
From Coq Require Import List NArith ZArith Bool Arith Lia Permutation.
From SK Require Import lib.LGraph lib.C01_GraphLemmas model.C01_Model model.C02_Model model.C09_Model
  proof.C01_Proof proof.C02_Proof proof.C09_Lists proof.C09_Valid proof.C09_Canon proof.C09_Equiv.
From SK Require model.C08_Model proof.C08_Sort proof.C08_Nauty model.C01_Opts proof.C01_OptsProof model.C01_Prem.
Import ListNotations.

(** hypotheses on a parsed mapped reaction (what rsmi_to_graph(expand_aam(.)) produces): simple graphs, node id =
    atom map > 0 *)
Definition parsed (G : mgraph) : Prop := wf G /\ amap_id G /\ pos_ids G.

(** some atom occurs on both sides: the canonicaliser has a non-empty node map *)
Definition shares_atom (G H : mgraph) : Prop := exists s, In s (node_ids G) /\ In s (node_ids H).

(** an executable test of [parsed], for concrete graphs *)
Definition parsedb (G : mgraph) : bool :=
  C01_Prem.nodupNb (node_ids G) && C01_Prem.simpleb (gedges G)
  && forallb (fun e : N * N * Z => let '(a, b, _) := e in mem a (node_ids G) && mem b (node_ids G) && negb (N.eqb a b)) (gedges G)
  && forallb (fun q : N * gnode => Z.eqb (g_amap (snd q)) (Z.of_N (fst q)) && negb (N.eqb (fst q) 0)) (gnodes G).
Lemma parsedb_sound (G : mgraph) : parsedb G = true -> parsed G.
Proof.
  unfold parsedb. rewrite !andb_true_iff, !forallb_forall. intros [[[Hn Hs] He] Ha]. split; [|split].
  - apply wf_intro; [apply C01_OptsProof.nodupNb_spec; exact Hn| |apply C01_OptsProof.simpleb_spec; exact Hs].
    intros a b x I. specialize (He _ I). cbv beta iota in He. rewrite !andb_true_iff, !mem_spec, negb_true_iff, N.eqb_neq in He. tauto.
  - intros n a E. apply assoc_in in E. specialize (Ha _ E). apply andb_true_iff in Ha. apply Z.eqb_eq. apply Ha.
  - intros n I. apply in_map_iff in I. destruct I as (q & <- & I). specialize (Ha _ I).
    rewrite andb_true_iff, negb_true_iff, N.eqb_neq in Ha. apply Ha.
Qed.
(** the canonical order enumerates the reactant atoms without repetition *)
Definition enumerates (order : list N) (G : mgraph) : Prop := NoDup order /\ forall n, In n order <-> In n (node_ids G).

Theorem canon_is_relabelling (G H Gc : mgraph) (order : list N) :
  parsed G -> parsed H -> enumerates order G -> relabelled_by (sigma_of order) G Gc ->
  shares_atom G H ->
  exists (f : N -> N) (pairs : list (N * N)) (Hc : mgraph),
    (forall a b, f a = f b -> a = b) /\
    (forall n, In n (node_ids G) -> f n = sigma_of order n) /\
    canonicalise_with Gc H = Some (set_amap Gc, pairs, set_amap Hc) /\
    relabelled_by f G Gc /\ Hc = relabel f H /\
    (forall a b, In (a, b) pairs <-> In b (node_ids G) /\ In b (node_ids H) /\ a = f b) /\
    its_isomorphic (its_construct (set_amap Gc) (set_amap Hc)) (its_construct G H) /\
    smiles_check_its (set_amap Gc) (set_amap Hc) G H = true.
Proof.
  intros (WG & AG & PG) (WH & AH & PH) (Ond & Oin) RG Hs.
  destruct (canonicalise_with_spec G H Gc order WG WH AG AH PG PH Ond Oin RG Hs) as (Hc & E & RF & EH & Fs & Fp).
  set (ff := C09_Canon.f H Gc order) in *.
  assert (Hinj : forall a b, ff a = ff b -> a = b) by (intros a b; apply tau_injective).
  exists ff, (aam_pairs Gc H), Hc. split; [exact Hinj|]. split; [intros n I; apply Fs; apply Oin; exact I|].
  split; [exact E|]. split; [exact RF|]. split; [exact EH|]. split; [exact Fp|].
  assert (Iso : its_isomorphic (its_construct (set_amap Gc) (set_amap Hc)) (its_construct G H)).
  { apply (its_relabelled_isomorphic ff); auto. rewrite EH. apply relabelled_exact. }
  split; [exact Iso|]. unfold smiles_check_its. apply is_isomorphic_iff; [apply its_nodup; auto|exact Iso].
Qed.

Lemma node_ids_to_c08 (G : mgraph) : node_ids (to_c08 G) = node_ids G.
Proof. unfold node_ids, to_c08. simpl. rewrite map_map. reflexivity. Qed.

Lemma perm_enumerates (order : list N) (G : mgraph) : wf G -> Permutation order (node_ids G) -> enumerates order G.
Proof.
  intros (Hnd & _) P. split; [eapply Permutation_NoDup; [apply Permutation_sym; exact P|exact Hnd]|].
  intros n. split; intros I; [eapply Permutation_in; [exact P|exact I]|eapply Permutation_in; [apply Permutation_sym; exact P|exact I]].
Qed.
Lemma wl_enumerates ranks (G : mgraph) : wf G -> enumerates (wl_order ranks G) G.
Proof.
  intros W. apply (perm_enumerates _ G W). unfold wl_order. cbv zeta.
  eapply Permutation_trans; [apply C08_Sort.sort_by_perm|]. rewrite node_ids_to_c08. apply Permutation_refl.
Qed.
Lemma nauty_enumerates (G : mgraph) : wf G -> enumerates (nauty_order G) G.
Proof.
  intros W. apply (perm_enumerates _ G W). unfold nauty_order.
  eapply Permutation_trans; [apply C08_Nauty.nauty_perm_perm; rewrite node_ids_to_c08; apply W|]. rewrite node_ids_to_c08. apply Permutation_refl.
Qed.

Definition gdflt : gnode := GN 0%N false 0 0 None 0.
Lemma flat_map_labels (s : N -> N) (G : mgraph) (l : list N) : (forall v, In v l -> In v (node_ids G)) ->
  flat_map (fun v => match label G v with Some a => [(s v, a)] | None => [] end) l
  = map (fun v => (s v, match label G v with Some a => a | None => gdflt end)) l.
Proof.
  induction l as [|v l IH]; simpl; intros Hsub; [reflexivity|].
  destruct (node_label_some (Hsub v (or_introl eq_refl))) as (a & Ea). rewrite Ea. simpl. f_equal.
  apply IH. intros w I. apply Hsub. right. exact I.
Qed.
Lemma rebuild_relabelled (order : list N) (G : mgraph) : wf G -> enumerates order G ->
  relabelled_by (sigma_of order) G (canon_rebuild order G).
Proof.
  intros (Hnd & _) (Ond & Oin). split; [|reflexivity]. unfold canon_rebuild, relabel. simpl.
  rewrite (flat_map_labels (sigma_of order) G order) by (intros v I; apply Oin; exact I).
  set (h := fun v => (sigma_of order v, match label G v with Some a => a | None => gdflt end)).
  assert (E2 : map (fun p : N * gnode => (sigma_of order (fst p), snd p)) (gnodes G) = map h (node_ids G)).
  { unfold node_ids. rewrite map_map. apply map_ext_in. intros p I. unfold h. rewrite (in_gnodes_label G p Hnd I). reflexivity. }
  rewrite E2. apply Permutation_map. apply NoDup_Permutation; auto.
Qed.

Theorem canon_wl_is_relabelling (ranks : list (N * Z)) (G H : mgraph) :
  parsed G -> parsed H -> shares_atom G H ->
  exists (f : N -> N) (Gc Hc : mgraph) (pairs : list (N * N)),
    (forall a b, f a = f b -> a = b) /\
    canonicalise_wl ranks G H = Some (set_amap Gc, pairs, set_amap Hc) /\
    relabelled_by f G Gc /\ Hc = relabel f H /\
    Permutation (node_ids Gc) (map N.of_nat (seq 1 (length (gnodes G)))) /\
    its_isomorphic (its_construct (set_amap Gc) (set_amap Hc)) (its_construct G H).
Proof.
  intros PG PH Hs. pose proof PG as (WG & _).
  pose proof (wl_enumerates ranks G WG) as En.
  destruct (canon_is_relabelling G H (canon_rebuild (wl_order ranks G) G) (wl_order ranks G) PG PH En
              (rebuild_relabelled _ G WG En) Hs) as (f & pairs & Hc & Hinj & Fs & E & RF & EH & _ & Iso & _).
  exists f, (canon_rebuild (wl_order ranks G) G), Hc, pairs.
  split; [exact Hinj|]. split; [exact E|]. split; [exact RF|]. split; [exact EH|]. split; [|exact Iso].
  (* canonical ids 1..N *)
  destruct En as (Ond & Oin).
  unfold canon_rebuild, node_ids. simpl. rewrite (flat_map_labels _ G _) by (intros v I; apply Oin; exact I).
  rewrite map_map. simpl. unfold sigma_of.
  rewrite (map_ext _ (C08_Model.apply_map (C08_Model.mapping_of (wl_order ranks G)))) by reflexivity.
  rewrite (C08_Sort.mapping_of_map (wl_order ranks G) Ond).
  assert (L : length (wl_order ranks G) = length (gnodes G)).
  { rewrite (Permutation_length (NoDup_Permutation Ond (proj1 WG) Oin)). unfold node_ids. apply map_length. }
  rewrite L. apply Permutation_refl.
Qed.

Theorem canon_nauty_is_relabelling (G H : mgraph) :
  parsed G -> parsed H -> shares_atom G H ->
  exists (f : N -> N) (Hc : mgraph) (pairs : list (N * N)),
    (forall a b, f a = f b -> a = b) /\
    canonicalise_nauty G H = Some (set_amap (relabel f G), pairs, set_amap Hc) /\ Hc = relabel f H /\
    its_isomorphic (its_construct (set_amap (relabel f G)) (set_amap Hc)) (its_construct G H).
Proof.
  intros PG PH Hs. pose proof PG as (WG & _).
  pose proof (nauty_enumerates G WG) as En.
  destruct (canon_is_relabelling G H (canon_relabel (nauty_order G) G) (nauty_order G) PG PH En
              (relabelled_exact _ G) Hs) as (f & pairs & Hc & Hinj & Fs & E & RF & EH & _ & Iso & _).
  assert (Eg : canon_relabel (nauty_order G) G = relabel f G).
  { unfold canon_relabel. apply (relabel_agree _ _ G WG). intros n I. symmetry. apply Fs. exact I. }
  exists f, Hc, pairs. unfold canonicalise_nauty. rewrite <- Eg.
  split; [exact Hinj|]. split; [exact E|]. split; [exact EH|exact Iso].
Qed.

Theorem validator_exact (G1 H1 G2 H2 : mgraph) : wf G2 -> wf H2 ->
  (smiles_check_its G1 H1 G2 H2 = true <-> its_isomorphic (its_construct G1 H1) (its_construct G2 H2)) /\
  (smiles_check_rc G1 H1 G2 H2 = true <->
     its_isomorphic (get_rc (its_construct G1 H1)) (get_rc (its_construct G2 H2))).
Proof.
  intros W1 W2. split.
  - unfold smiles_check_its. apply is_isomorphic_iff. apply its_nodup; auto.
  - unfold smiles_check_rc. apply is_isomorphic_iff. destruct (rc_wf _ (its_wf G2 H2 W1 W2)) as (A & _). exact A.
Qed.

(** every renumbering is accepted.  ITS method: also when the renumbered graphs list their atoms in another order and
    carry the new numbers in their atom_map attribute (what parsing the renumbered string produces). *)
Theorem validator_renumbering (f : N -> N) (G H : mgraph) : (forall a b, f a = f b -> a = b) -> wf G -> wf H ->
  smiles_check_its (relabel f G) (relabel f H) G H = true /\
  smiles_check_rc (relabel f G) (relabel f H) G H = true /\
  (forall G' H', relabelled_by f G G' -> relabelled_by f H H' -> smiles_check_its (set_amap G') (set_amap H') G H = true).
Proof.
  intros Hinj WG WH. destruct (validator_exact (relabel f G) (relabel f H) G H WG WH) as (E1 & E2).
  split; [|split].
  - apply E1. rewrite (construct_equivariant f Hinj). apply relabel_isomorphic. exact Hinj.
  - apply E2. rewrite (construct_equivariant f Hinj), (rc_equivariant f Hinj). apply relabel_isomorphic. exact Hinj.
  - intros G' H' RG RH. apply (validator_exact (set_amap G') (set_amap H') G H WG WH).
    apply (its_relabelled_isomorphic f); auto.
Qed.

(** a mapping that is not equivalent to the reference (non-isomorphic ITS / centre) is rejected; in particular the
    mapping obtained by transposing the product-side numbers of two atoms x, y *)
Definition transp (x y n : N) : N := if N.eqb n x then y else if N.eqb n y then x else n.
Lemma transp_inj (x y a b : N) : transp x y a = transp x y b -> a = b.
Proof. unfold transp. destruct (N.eqb_spec a x), (N.eqb_spec a y), (N.eqb_spec b x), (N.eqb_spec b y); congruence. Qed.
Theorem validator_rejects_swap (x y : N) (G H : mgraph) : wf G -> wf H ->
  (~ its_isomorphic (its_construct G (relabel (transp x y) H)) (its_construct G H) ->
   smiles_check_its G (relabel (transp x y) H) G H = false) /\
  (~ its_isomorphic (get_rc (its_construct G (relabel (transp x y) H))) (get_rc (its_construct G H)) ->
   smiles_check_rc G (relabel (transp x y) H) G H = false).
Proof.
  intros WG WH. destruct (validator_exact G (relabel (transp x y) H) G H WG WH) as (E1 & E2).
  split; intros Hn; apply not_true_iff_false; intros E; apply Hn; [apply E1|apply E2]; exact E.
Qed.

(** CH3-Br + OH-  >>  CH3-OH + Br-   (C = 70, Br = 3 + 0x4272 = 17013, O = 82; hydrogens implicit) *)
Definition ex_G : mgraph :=
  LG [(1%N, GN 70%N false 3 0 None 1); (2%N, GN 17013%N false 0 0 None 2); (7%N, GN 82%N false 1 (-1) None 7)] [(1%N, 2%N, 2%Z)].
Definition ex_H : mgraph :=
  LG [(1%N, GN 70%N false 3 0 None 1); (7%N, GN 82%N false 1 0 None 7); (2%N, GN 17013%N false 0 (-1) None 2)] [(1%N, 7%N, 2%Z)].
(** the same with a proton released: a product atom without reactant partner, numbered 3 *)
Definition ex_H3 : mgraph :=
  LG [(1%N, GN 70%N false 3 0 None 1); (7%N, GN 82%N false 0 (-1) None 7); (2%N, GN 17013%N false 0 (-1) None 2); (3%N, GN EL_H false 0 1 None 3)]
     [(1%N, 7%N, 2%Z)].
Definition ex_order : list N := [1%N; 7%N; 2%N].

Lemma ex_G_parsed : parsed ex_G.
Proof. apply parsedb_sound. reflexivity. Qed.
Lemma ex_H_parsed : parsed ex_H.
Proof. apply parsedb_sound. reflexivity. Qed.
Lemma ex_H3_parsed : parsed ex_H3.
Proof. apply parsedb_sound. reflexivity. Qed.
Lemma ex_order_enumerates : enumerates ex_order ex_G.
Proof. split; [apply C01_OptsProof.nodupNb_spec; reflexivity|]. intros n. unfold ex_order. simpl. intuition. Qed.

(** the hypotheses of [canon_is_relabelling] are satisfiable, with and without a partner-less product atom, and the
    result is what the implementation returns on this input (regress witness collision#wl) *)
Definition ex_canon3 := canonicalise_with (canon_rebuild ex_order ex_G) ex_H3.
Example ex_canon_hyps :
  parsed ex_G /\ parsed ex_H3 /\ enumerates ex_order ex_G /\ relabelled_by (sigma_of ex_order) ex_G (canon_rebuild ex_order ex_G) /\
  (exists s, In s (node_ids ex_G) /\ In s (node_ids ex_H3)).
Proof.
  split; [exact ex_G_parsed|]. split; [exact ex_H3_parsed|]. split; [exact ex_order_enumerates|].
  split; [apply rebuild_relabelled; [apply ex_G_parsed|exact ex_order_enumerates]|]. exists 1%N. simpl. auto.
Qed.
Example ex_canon_value :
  option_map (fun r => (node_ids (fst (fst r)), snd (fst r), node_ids (snd r))) ex_canon3
  = Some ([1%N; 2%N; 3%N], [(1%N, 1%N); (3%N, 2%N); (2%N, 7%N)], [1%N; 2%N; 3%N; 4%N]).
Proof. vm_compute. reflexivity. Qed.

(** C09_unbalanced_collision_refuted: remap_graph with the shared pairs only (the code before repair 8092e28) merges the
    bromide with the proton that kept its number 3 *)
Definition ex_collision := remap_graph ex_H3 (aam_pairs (canon_rebuild ex_order ex_G) ex_H3).
Theorem unbalanced_collision_refuted :
  exists (Gc H : mgraph), NoDup (node_ids H) /\ amap_id H /\
    match remap_graph H (aam_pairs Gc H) with
    | Some Hc => (length (gnodes Hc) < length (gnodes H))%nat
    | None => False
    end.
Proof.
  exists (canon_rebuild ex_order ex_G), ex_H3. split; [apply ex_H3_parsed|]. split; [apply ex_H3_parsed|].
  vm_compute. lia.
Qed.

(** validator: swapping the product-side numbers of Br (2) and O (7) gives a non-equivalent mapping: rejected;
    the renumbering 1,2,7 -> 5,6,4 is accepted *)
Definition ex_ren (n : N) : N := if N.eqb n 1 then 5%N else if N.eqb n 2 then 6%N else if N.eqb n 7 then 4%N else (n + 10)%N.
Example ex_validator :
  smiles_check_its ex_G (relabel (transp 2 7) ex_H) ex_G ex_H = false /\
  smiles_check_rc ex_G (relabel (transp 2 7) ex_H) ex_G ex_H = false /\
  smiles_check_its (relabel ex_ren ex_G) (relabel ex_ren ex_H) ex_G ex_H = true /\
  smiles_check_rc (relabel ex_ren ex_G) (relabel ex_ren ex_H) ex_G ex_H = true.
Proof. vm_compute. auto. Qed.
Example ex_swap_not_isomorphic :
  ~ its_isomorphic (its_construct ex_G (relabel (transp 2 7) ex_H)) (its_construct ex_G ex_H).
Proof.
  intros Hiso. apply (validator_exact ex_G (relabel (transp 2 7) ex_H) ex_G ex_H) in Hiso; [|apply ex_G_parsed|apply ex_H_parsed].
  vm_compute in Hiso. discriminate.
Qed.
(** two equivalent centre atoms: O=C=O, both oxygens lose a bond order to carbon; swapping 2 and 3 is accepted *)
Definition ex_S : mgraph :=
  LG [(1%N, GN 70%N false 0 0 None 1); (2%N, GN 82%N false 0 0 None 2); (3%N, GN 82%N false 0 0 None 3)] [(1%N, 2%N, 4%Z); (1%N, 3%N, 4%Z)].
Definition ex_S' : mgraph :=
  LG [(1%N, GN 70%N false 0 0 None 1); (2%N, GN 82%N false 0 0 None 2); (3%N, GN 82%N false 0 0 None 3)] [(1%N, 2%N, 2%Z); (1%N, 3%N, 2%Z)].
Example ex_equivalent_swap_accepted :
  smiles_check_its ex_S (relabel (transp 2 3) ex_S') ex_S ex_S' = true /\ smiles_check_rc ex_S (relabel (transp 2 3) ex_S') ex_S ex_S' = true.
Proof. vm_compute. auto. Qed.

(** the validator under ignore_aromaticity = ia: still exact, on the ITS / centre built with that option *)
Theorem validator_exact_o (ia : bool) (G1 H1 G2 H2 : mgraph) : wf G2 -> wf H2 ->
  (smiles_check_its_o ia G1 H1 G2 H2 = true <->
     its_isomorphic (C01_Opts.its_construct_o (vopts ia) G1 H1) (C01_Opts.its_construct_o (vopts ia) G2 H2)) /\
  (smiles_check_rc_o ia G1 H1 G2 H2 = true <->
     its_isomorphic (get_rc (C01_Opts.its_construct_o (vopts ia) G1 H1)) (get_rc (C01_Opts.its_construct_o (vopts ia) G2 H2))).
Proof.
  intros W1 W2. split.
  - unfold smiles_check_its_o. apply is_isomorphic_iff. unfold C01_Opts.its_construct_o. apply C01_OptsProof.gen_nodup; assumption.
  - unfold smiles_check_rc_o. apply is_isomorphic_iff.
    assert (W : wf (C01_Opts.its_construct_o (vopts ia) G2 H2)) by (unfold C01_Opts.its_construct_o; apply C01_OptsProof.gen_wf; assumption).
    destruct (rc_wf _ W) as (A & _). exact A.
Qed.
(** with the default option these are the functions of [validator_exact] *)
Lemma smiles_check_o_default G1 H1 G2 H2 :
  smiles_check_its_o false G1 H1 G2 H2 = smiles_check_its G1 H1 G2 H2 /\ smiles_check_rc_o false G1 H1 G2 H2 = smiles_check_rc G1 H1 G2 H2.
Proof.
  unfold smiles_check_its_o, smiles_check_rc_o, smiles_check_its, smiles_check_rc, vopts.
  change (C01_Opts.CO false false dflt_nattr) with C01_Opts.default_opts. rewrite !C01_OptsProof.construct_default. auto.
Qed.
(** generic back-end *)
Lemma generic_enumerates (G : mgraph) : wf G -> enumerates (generic_order G) G.
Proof.
  intros W. apply (perm_enumerates _ G W). unfold generic_order. rewrite <- (node_ids_to_c08 G). unfold node_ids.
  apply Permutation_map. apply C08_Sort.sort_by_perm.
Qed.
Theorem canon_generic_is_relabelling (G H : mgraph) :
  parsed G -> parsed H -> shares_atom G H ->
  exists (f : N -> N) (Gc Hc : mgraph) (pairs : list (N * N)),
    (forall a b, f a = f b -> a = b) /\
    canonicalise_generic G H = Some (set_amap Gc, pairs, set_amap Hc) /\
    relabelled_by f G Gc /\ Hc = relabel f H /\
    its_isomorphic (its_construct (set_amap Gc) (set_amap Hc)) (its_construct G H).
Proof.
  intros PG PH Hs. pose proof PG as (WG & _). pose proof (generic_enumerates G WG) as En.
  destruct (canon_is_relabelling G H (canon_rebuild (generic_order G) G) (generic_order G) PG PH En
              (rebuild_relabelled _ G WG En) Hs) as (f & pairs & Hc & Hinj & Fs & E & RF & EH & _ & Iso & _).
  exists f, (canon_rebuild (generic_order G) G), Hc, pairs.
  split; [exact Hinj|]. split; [exact E|]. split; [exact RF|]. split; [exact EH|exact Iso].
Qed.

Example ex_remap_list : remap_graph_list ex_H [1%N; 7%N; 2%N] = Some (relabel (sigma_of [1%N; 7%N; 2%N]) ex_H)
  /\ option_map (fun g : mgraph => node_ids g) (remap_graph_list ex_H [1%N; 7%N; 2%N]) = Some [1%N; 2%N; 3%N].
Proof. vm_compute. auto. Qed.
