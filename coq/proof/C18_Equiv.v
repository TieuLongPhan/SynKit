(** C18 — equivariance: the signature, the initial partition and the label of the model are transported by an
    injective renaming of the nodes and do not depend on the insertion order of nodes / arcs; hence (lib/IRCore
    [leaves_rel]) the leaf enumeration of a renamed, reordered view is the renamed leaf enumeration up to order. *)
From Coq Require Import List NArith ZArith Bool Arith Lia Permutation.
From SK Require Import lib.IRSortKeys lib.IRCore lib.IRSearch lib.StrJoin lib.C18_IRValid model.C18_Model
  proof.C18_Order proof.C18_Spec proof.C18_Graph proof.C18_Canon.
From SK Require lib.IRInst.
Import ListNotations.

(* ---------------- sorting the out-edge attributes ---------------- *)
Lemma attr_leb_spec a b : attr_leb a b = true <-> (fst a < fst b \/ (fst a = fst b /\ snd a <= snd b))%Z.
Proof.
  unfold attr_leb. destruct (Z.ltb_spec (fst a) (fst b)); [split; auto|].
  destruct (Z.ltb_spec (fst b) (fst a)).
  - split; [discriminate|lia].
  - rewrite Z.leb_le. split; [intros; right; lia|intros [?|[? ?]]; lia].
Qed.
Lemma attr_eq (a b : eattr) : fst a = fst b -> snd a = snd b -> a = b.
Proof. destruct a, b; simpl; intros; subst; auto. Qed.

Lemma attr_leb_total a b : attr_leb a b = true \/ attr_leb b a = true.
Proof. rewrite !attr_leb_spec. lia. Qed.
Lemma attr_leb_trans a b c : attr_leb a b = true -> attr_leb b c = true -> attr_leb a c = true.
Proof. rewrite !attr_leb_spec. lia. Qed.
Lemma attr_leb_antisym a b : attr_leb a b = true -> attr_leb b a = true -> a = b.
Proof. rewrite !attr_leb_spec. intros H1 H2. apply attr_eq; lia. Qed.
Lemma sort_attrs_perm l l' : Permutation l l' -> sort_attrs l = sort_attrs l'.
Proof. exact (isort_perm _ attr_leb attr_leb_total attr_leb_trans attr_leb_antisym l l'). Qed.

(* ---------------- the signature does not depend on the presentation ---------------- *)
Lemma geq_has_arc g h u v : wf g -> geq g h -> has_arc h u v = has_arc g u v.
Proof. intros Hw Hg. unfold has_arc. rewrite (geq_find_arc g h u v Hw Hg). reflexivity. Qed.
Lemma geq_is_nbr g h u v : wf g -> geq g h -> is_nbr h u v = is_nbr g u v.
Proof. intros Hw Hg. unfold is_nbr. rewrite !(geq_has_arc g h) by auto. reflexivity. Qed.

Lemma sig_geq g h P v : wf g -> geq g h -> sig h P v = sig g P v.
Proof.
  intros Hw Hg. unfold sig. rewrite (geq_kind_of g h v Hw Hg).
  destruct Hg as [H1 H2].
  assert (Hin : indeg h v = indeg g v).
  { unfold indeg. apply Permutation_length. apply Permutation_filter. apply Permutation_sym. auto. }
  assert (Hout : outdeg h v = outdeg g v).
  { unfold outdeg. apply Permutation_length. apply Permutation_filter. apply Permutation_sym. auto. }
  rewrite Hin, Hout. f_equal. f_equal.
  - apply map_ext. intros c. unfold cnt. f_equal. f_equal. apply filter_ext_in. intros n _.
    apply geq_is_nbr; auto. split; auto.
  - f_equal. apply sort_attrs_perm. unfold out_attrs. apply Permutation_map. apply Permutation_filter.
    apply Permutation_sym. auto.
Qed.

(* ---------------- the signature is transported by an injective renaming ---------------- *)
Section Rename.
Variable f : N -> N.
Hypothesis f_inj : forall x y, f x = f y -> x = y.

Lemma eqb_f x y : N.eqb (f x) (f y) = N.eqb x y.
Proof.
  destruct (N.eqb_spec x y) as [->|H]; [apply N.eqb_refl|].
  apply N.eqb_neq. intro E. apply H. apply f_inj. exact E.
Qed.

Lemma kind_of_rn g v : kind_of (relabel f g) (f v) = kind_of g v.
Proof.
  unfold kind_of, relabel; simpl. induction (vnodes g) as [|[u k] l IH]; simpl; auto.
  rewrite eqb_f. destruct (N.eqb u v); auto.
Qed.
Lemma find_arc_rn g u v : find_arc (relabel f g) (f u) (f v) = find_arc g u v.
Proof.
  unfold find_arc, relabel; simpl. induction (varcs g) as [|e l IH]; simpl; auto.
  change (asrc (f (asrc e), f (adst e), aattr e)) with (f (asrc e)).
  change (adst (f (asrc e), f (adst e), aattr e)) with (f (adst e)).
  change (aattr (f (asrc e), f (adst e), aattr e)) with (aattr e).
  rewrite !eqb_f. destruct (N.eqb (asrc e) u && N.eqb (adst e) v); auto.
Qed.
Lemma is_nbr_rn g u v : is_nbr (relabel f g) (f u) (f v) = is_nbr g u v.
Proof. unfold is_nbr, has_arc. rewrite !find_arc_rn. reflexivity. Qed.

Lemma filter_arcs_rn (sel : arc -> N) g v :
  (forall e, sel (f (asrc e), f (adst e), aattr e) = f (sel e)) ->
  filter (fun e => N.eqb (sel e) (f v)) (varcs (relabel f g))
  = map (fun e => (f (asrc e), f (adst e), aattr e)) (filter (fun e => N.eqb (sel e) v) (varcs g)).
Proof.
  intros Hs. unfold relabel; simpl. symmetry. apply map_filter_comm. intros e _. rewrite Hs. apply eqb_f.
Qed.
Lemma indeg_rn g v : indeg (relabel f g) (f v) = indeg g v.
Proof. unfold indeg. rewrite (filter_arcs_rn adst); [apply map_length|reflexivity]. Qed.
Lemma outdeg_rn g v : outdeg (relabel f g) (f v) = outdeg g v.
Proof. unfold outdeg. rewrite (filter_arcs_rn asrc); [apply map_length|reflexivity]. Qed.
Lemma out_attrs_rn g v : out_attrs (relabel f g) (f v) = out_attrs g v.
Proof. unfold out_attrs. rewrite (filter_arcs_rn asrc); [|reflexivity]. rewrite map_map. reflexivity. Qed.

Lemma cnt_rn g v c c' : cellR f c c' -> cnt (relabel f g) (f v) c' = cnt g v c.
Proof.
  intros Hc. unfold cnt. f_equal. unfold cellR in Hc.
  rewrite <- (Permutation_length (Permutation_filter (is_nbr (relabel f g) (f v)) Hc)).
  rewrite <- (map_filter_comm f (is_nbr g v) (is_nbr (relabel f g) (f v))).
  - apply map_length.
  - intros x _. apply is_nbr_rn.
Qed.

Lemma sig_rn g P P' v : partR f P P' -> sig (relabel f g) P' (f v) = sig g P v.
Proof.
  intros HP. unfold sig. rewrite kind_of_rn, indeg_rn, outdeg_rn, out_attrs_rn. f_equal. f_equal.
  induction HP as [|c c' P P' Hc HP IH]; simpl; auto. f_equal; auto. apply cnt_rn. auto.
Qed.

(** the model's signature satisfies the hypothesis [sig_rel] of lib/IRCore for a renamed, re-presented view *)
Theorem sig_rel g g' P P' v : wf g -> geq g' (relabel f g) -> partR f P P' -> sig g' P' (f v) = sig g P v.
Proof.
  intros Hw Hg HP. rewrite <- (sig_rn g P P' v HP). symmetry.
  assert (Hw' : wf g') by (apply (geq_wf (relabel f g)); [apply geq_sym; auto|apply wf_relabel; auto; intros x y _ _; apply f_inj]).
  rewrite <- (sig_geq g' (relabel f g) P' (f v) Hw' Hg). reflexivity.
Qed.
End Rename.

(* ---------------- the label ---------------- *)
Lemma label_ext g h p : (forall v, kind_of h v = kind_of g v) -> (forall u v, find_arc h u v = find_arc g u v) ->
  label h p = label g p.
Proof.
  intros Hk Ha. unfold label. f_equal; [f_equal; apply map_ext; intros v; rewrite Hk; auto|].
  f_equal. f_equal. unfold edge_bits. apply flat_map_ext. intros iv. apply flat_map_ext. intros jw.
  unfold bit. rewrite Ha. reflexivity.
Qed.
Lemma label_geq g h p : wf g -> geq g h -> label h p = label g p.
Proof. intros Hw Hg. apply label_ext; intros; [apply geq_kind_of|apply geq_find_arc]; auto. Qed.

Lemma indexed_map (f : N -> N) p : indexed (map f p) = map (fun iv => (fst iv, f (snd iv))) (indexed p).
Proof.
  unfold indexed. rewrite map_length. generalize (seq 0 (length p)) as s. induction p as [|x p IH]; intros [|i s]; simpl; auto.
  f_equal. apply IH.
Qed.

Lemma label_rn f (f_inj : forall x y, f x = f y -> x = y) g p : label (relabel f g) (map f p) = label g p.
Proof.
  unfold label. rewrite map_map. f_equal; [f_equal; apply map_ext; intros v; rewrite kind_of_rn; auto|].
  f_equal. f_equal. unfold edge_bits. rewrite indexed_map, flat_map_map. apply flat_map_ext. intros iv.
  rewrite flat_map_map. apply flat_map_ext. intros jw. simpl. unfold bit. rewrite find_arc_rn; auto.
Qed.

Lemma label_rel f (f_inj : forall x y, f x = f y -> x = y) g g' p : wf g -> geq g' (relabel f g) ->
  label g' (map f p) = label g p.
Proof.
  intros Hw Hg. rewrite <- (label_rn f f_inj g p).
  assert (Hw' : wf (relabel f g)) by (apply wf_relabel; auto; intros x y _ _; apply f_inj).
  apply label_geq; auto. apply geq_sym. auto.
Qed.

(* ---------------- the initial partition ---------------- *)
Lemma init_part_geq g h : geq g h -> init_part h = init_part g.
Proof.
  intros [H1 _]. unfold init_part.
  assert (E : sort_dedup Z.leb (map snd (vnodes h)) = sort_dedup Z.leb (map snd (vnodes g))).
  { apply (sort_dedup_ext Z.leb Zleb_total Zleb_trans Zleb_antisym). intros y.
    split; apply Permutation_in; apply Permutation_map; auto. apply Permutation_sym. auto. }
  rewrite E. apply map_ext. intros k. unfold sortN.
  apply (sort_dedup_ext N.leb Nleb_total Nleb_trans Nleb_antisym). intros y.
  split; apply Permutation_in; apply Permutation_map; apply Permutation_filter; auto. apply Permutation_sym. auto.
Qed.

Lemma init_part_rn f (f_inj : forall x y, f x = f y -> x = y) g : NoDup (node_ids g) ->
  partR f (init_part g) (init_part (relabel f g)).
Proof.
  intros Hnd. unfold init_part, relabel; simpl. rewrite map_map. simpl.
  apply Forall2_map_same. intros k _. unfold cellR.
  set (A := map fst (filter (fun p => Z.eqb (snd p) k) (vnodes g))).
  assert (EA : map fst (filter (fun p => Z.eqb (snd p) k) (map (fun p => (f (fst p), snd p)) (vnodes g))) = map f A).
  { unfold A. rewrite <- (map_filter_comm (fun p : N * Z => (f (fst p), snd p)) (fun p => Z.eqb (snd p) k) (fun p => Z.eqb (snd p) k)).
    - rewrite !map_map. reflexivity.
    - intros; reflexivity. }
  rewrite EA.
  assert (HA : NoDup A).
  { unfold A. rewrite kind_cell; auto. apply NoDup_filter. auto. }
  eapply perm_trans; [apply Permutation_map; apply sortN_perm; auto|].
  apply Permutation_sym. apply sortN_perm. apply NoDup_map_inj_on; auto.
Qed.

(* ---------------- the leaf enumeration ---------------- *)
Theorem leaves_of_rel f (f_inj : forall x y, f x = f y -> x = y) g g' : wf g -> geq g' (relabel f g) ->
  Permutation (map (map f) (leaves_of g)) (leaves_of g').
Proof.
  intros Hw Hg. unfold leaves_of.
  assert (El : length (vnodes g') = length (vnodes g)).
  { rewrite (Permutation_length (proj1 Hg)). unfold relabel; simpl. apply map_length. }
  rewrite El.
  apply (leaves_rel IRInst.lexleb IRInst.lexleb_total (fun a b c H1 H2 => IRInst.lexleb_trans a b c H1 H2)
           IRInst.lexleb_antisym f_inj (sig g) (sig g')).
  - intros P P' v HP. apply sig_rel; auto.
  - rewrite (init_part_geq _ _ (geq_sym _ _ Hg)). apply init_part_rn; auto. apply Hw.
Qed.

Theorem best_label_rel f (f_inj : forall x y, f x = f y -> x = y) g g' : wf g -> geq g' (relabel f g) ->
  best_label (canon_search g') = best_label (canon_search g).
Proof.
  intros Hw Hg. rewrite !canon_search_fold, !best_label_fold.
  rewrite <- (fold_minl_perm lexlebN lexlebN_total lexlebN_trans lexlebN_antisym
                (Permutation_map (label g') (leaves_of_rel f f_inj g g' Hw Hg))).
  rewrite map_map. f_equal. apply map_ext. intros p. apply label_rel; auto.
Qed.
