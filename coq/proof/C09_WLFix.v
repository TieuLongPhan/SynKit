(** C09 — fixed point of [canonicalise_wl] WITHOUT the hypothesis of pairwise distinct colours:
    after the first run the node ids of the canonical reactant graph ARE the positions in the (colour, degree, id) order, so when
    the colours of the second run correspond (networkx contract: premise) the second stable sort is the identity even with tied
    colours - a sorted list is a fixed point of the sort. *)
From Coq Require Import List NArith ZArith Bool Arith Lia Permutation.
From SK Require Import lib.LGraph lib.C01_GraphLemmas model.C01_Model model.C09_Model
  proof.C09_Lists proof.C09_Canon proof.C09_Equiv proof.C09_Main proof.C09_Indep proof.C09_WL proof.C09_Nauty
  proof.C09_Graph proof.C09_Backends.
From SK Require model.C08_Model proof.C08_Sort proof.C08_Equiv proof.C08_Spec lib.IRInst proof.C09_WLRefuted.
Import ListNotations.

Notation lexleb := IRInst.lexleb.

(** replacing the last component of two 3-component keys by strictly increasing values keeps the order *)
Lemma lex3 (a b c a' b' c' d d' : Z) : lexleb [a; b; c] [a'; b'; c'] = true -> (d < d')%Z -> lexleb [a; b; d] [a'; b'; d'] = true.
Proof.
  simpl. intros H Hd.
  destruct (Z.ltb_spec a a'); [reflexivity|]. destruct (Z.ltb_spec a' a); [discriminate|].
  destruct (Z.ltb_spec b b'); [reflexivity|]. destruct (Z.ltb_spec b' b); [discriminate|].
  destruct (Z.ltb_spec d d'); [reflexivity|lia].
Qed.

Section Fix.
Variables (rk dg : N -> Z) (c : N -> N).
Let key1 (n : N) : list Z := [rk n; dg n; Z.of_N n].
Let key3 (n : N) : list Z := [rk n; dg n; Z.of_N (c n)].

Lemma ksorted_positions : forall (L : list N) (k : nat),
  map c L = map N.of_nat (seq k (length L)) -> C08_Sort.ksorted key1 L -> C08_Sort.ksorted key3 L.
Proof.
  induction L as [|x L IH]; intros k Hc Hs; [constructor|].
  inversion Hs as [|? ? Hs' Hx]; subst. simpl in Hc. injection Hc as Hx0 Hc'. constructor.
  - apply (IH (S k)); assumption.
  - intros y Iy. unfold key3. apply (lex3 _ _ (Z.of_N x) _ _ (Z.of_N y)); [exact (Hx y Iy)|].
    assert (Iy' : In (c y) (map c L)) by (apply in_map; exact Iy). rewrite Hc' in Iy'. apply in_map_iff in Iy'.
    destruct Iy' as (j & Ej & Ij). apply in_seq in Ij. rewrite Hx0, <- Ej. lia.
Qed.

Lemma sorted_fixed (L : list N) : NoDup L -> (forall x y, In x L -> In y L -> c x = c y -> x = y) ->
  map c L = map N.of_nat (seq 1 (length L)) -> C08_Sort.ksorted key1 L -> C08_Model.sort_by key3 L = L.
Proof.
  intros Hnd Hinj Hc Hs. apply (C08_Sort.ksorted_unique key3).
  - apply C08_Sort.sort_by_sorted.
  - apply (ksorted_positions L 1 Hc Hs).
  - apply C08_Sort.sort_by_perm.
  - intros x y Ix Iy E. apply (proj1 (C08_Sort.sort_by_in key3 L x)) in Ix. apply (proj1 (C08_Sort.sort_by_in key3 L y)) in Iy.
    apply Hinj; auto. unfold key3 in E. injection E as _ _ E. apply N2Z.inj. exact E.
Qed.
End Fix.

(** the second canonical order, on EVERY parsed presentation G' of the canonical reactant graph: the sort key (colour, degree, id)
    is total on distinct ids, so it does not depend on the listing order of the atoms / bonds of G' *)
Lemma wl_order_after (ranks1 ranks2 : list (N * Z)) (G G' : mgraph) (f1 : N -> N) :
  wf G -> (forall a b, f1 a = f1 b -> a = b) ->
  (forall n, In n (wl_order ranks1 G) -> f1 n = sigma_of (wl_order ranks1 G) n) ->
  presents f1 G G' ->
  (forall n, In n (node_ids G) -> C08_Model.rank_of ranks2 (sigma_of (wl_order ranks1 G) n) = C08_Model.rank_of ranks1 n) ->
  wl_order ranks2 G' = map f1 (wl_order ranks1 G).
Proof.
  intros WG Finj Fs1 RG2 Hr. pose proof (wl_enumerates ranks1 G WG) as (O1 & I1). set (order1 := wl_order ranks1 G) in *.
  assert (Ef : map f1 order1 = map (sigma_of order1) order1) by (apply map_ext_in; intros n I; apply Fs1; exact I).
  assert (Epos : map f1 order1 = map N.of_nat (seq 1 (length order1))).
  { rewrite Ef. unfold sigma_of. apply (C08_Sort.mapping_of_map order1 O1). }
  assert (P : Permutation (node_ids G') (map f1 order1)).
  { eapply Permutation_trans; [apply (presents_node_ids f1 G G' RG2)|]. apply Permutation_map. apply Permutation_sym.
    apply NoDup_Permutation; [exact O1|destruct WG as (A & _); exact A|exact I1]. }
  unfold wl_order at 1. cbv zeta. rewrite node_ids_to_c08.
  rewrite (C08_Sort.sort_by_perm_eq _ (node_ids G') (map f1 order1) P)
    by (intros x y _ _ E; injection E as _ _ E; apply N2Z.inj; exact E).
  rewrite C08_Sort.sort_by_map. f_equal.
  set (rk := C08_Model.rank_of ranks1). set (dg := C08_Model.degree (to_c08 G)).
  rewrite (sort_by_ext _ (fun n => [rk n; dg n; Z.of_N (f1 n)])).
  - apply (sorted_fixed rk dg f1 order1 O1); [intros x y _ _ E; apply Finj; exact E|exact Epos|].
    unfold order1, wl_order. cbv zeta. rewrite node_ids_to_c08. apply C08_Sort.sort_by_sorted.
  - intros x y Ix Iy.
    assert (K : forall n, In n order1 ->
              [C08_Model.rank_of ranks2 (f1 n); C08_Model.degree (to_c08 G') (f1 n); Z.of_N (f1 n)] = [rk n; dg n; Z.of_N (f1 n)]).
    { intros n In_. f_equal; [|f_equal].
      - rewrite (Fs1 n In_). apply Hr. apply I1. exact In_.
      - apply (C08_Equiv.degree_rel f1 Finj (to_c08 G) (to_c08 G') (geq_cov_presents f1 G G' RG2)). }
    rewrite (K x Ix), (K y Iy). reflexivity.
Qed.

Theorem fixed_point_wl_ties (ranks1 ranks2 : list (N * Z)) (G H : mgraph) :
  parsed G -> parsed H -> (exists s, In s (node_ids G) /\ In s (node_ids H)) ->
  (forall n, In n (node_ids G) -> C08_Model.rank_of ranks2 (sigma_of (wl_order ranks1 G) n) = C08_Model.rank_of ranks1 n) ->
  exists (pairs1 : list (N * N)) (Gc1 Hc1 : mgraph),
    canonicalise_wl ranks1 G H = Some (Gc1, pairs1, Hc1) /\
    exists (pairs2 : list (N * N)) (Gc2 Hc2 : mgraph),
      canonicalise_wl ranks2 Gc1 Hc1 = Some (Gc2, pairs2, Hc2) /\ same_upto_order Gc2 Gc1 /\ same_upto_order Hc2 Hc1.
Proof.
  intros PG PH Hs Hr. pose proof PG as (WG & _).
  pose proof (wl_enumerates ranks1 G WG) as En1. pose proof En1 as (O1 & I1).
  set (Gc1 := canon_rebuild (wl_order ranks1 G) G).
  destruct (fixed_point_maps G H Gc1 (wl_order ranks1 G) PG PH Hs En1 (rebuild_relabelled _ G WG En1))
    as (pairs1 & Hc1 & f1 & E1 & (WGc & _) & _ & Finj & Fs & RF1 & Hfix).
  exists pairs1, (set_amap Gc1), (set_amap Hc1). split; [exact E1|].
  pose proof (wl_enumerates ranks2 (set_amap Gc1) WGc) as En2.
  assert (Ord2 : wl_order ranks2 (set_amap Gc1) = map f1 (wl_order ranks1 G)).
  { apply wl_order_after; auto; [intros n I; apply Fs, I1, I|apply relabelled_presents; exact RF1]. }
  destruct (Hfix (wl_order ranks2 (set_amap Gc1)) (canon_rebuild (wl_order ranks2 (set_amap Gc1)) (set_amap Gc1)) En2
              (rebuild_relabelled _ _ WGc En2)) as (pairs2 & Hc2' & E2 & S1 & S2).
  - intros n I. rewrite Ord2. apply (sigma_of_map f1 Finj).
  - exists pairs2, (set_amap (canon_rebuild (wl_order ranks2 (set_amap Gc1)) (set_amap Gc1))), Hc2'.
    unfold canonicalise_wl. auto.
Qed.

Theorem fixed_point_wl_ties_sg (ranks1 : list (N * Z)) (G H : mgraph) :
  parsed G -> parsed H -> shares_atom G H ->
  exists (pairs1 : list (N * N)) (Gc1 Hc1 : mgraph),
    canonicalise_wl ranks1 G H = Some (Gc1, pairs1, Hc1) /\
    forall (ranks2 : list (N * Z)) (G' H' : mgraph), parsed G' -> parsed H' -> same_graph G' Gc1 -> same_graph H' Hc1 ->
      (forall n, In n (node_ids G) -> C08_Model.rank_of ranks2 (sigma_of (wl_order ranks1 G) n) = C08_Model.rank_of ranks1 n) ->
      exists (pairs2 : list (N * N)) (Gc2 Hc2 : mgraph),
        canonicalise_wl ranks2 G' H' = Some (Gc2, pairs2, Hc2) /\ same_graph Gc2 Gc1 /\ same_graph Hc2 Hc1.
Proof.
  intros PG PH Hs. pose proof PG as (WG & _).
  pose proof (wl_enumerates ranks1 G WG) as En1. pose proof En1 as (O1 & I1).
  destruct (fixed_point_sg G H (canon_rebuild (wl_order ranks1 G) G) (wl_order ranks1 G) PG PH Hs En1 (rebuild_relabelled _ G WG En1))
    as (pairs1 & Gc1 & Hc1 & f1 & E1 & Finj & Fs & Hfix).
  exists pairs1, Gc1, Hc1. split; [exact E1|].
  intros ranks2 G' H' PG2 PH2 SG SH Hr. pose proof PG2 as (WG2 & _).
  destruct (Hfix G' H' PG2 PH2 SG SH) as (RG2 & Hrun).
  pose proof (wl_enumerates ranks2 G' WG2) as En2.
  assert (Ord2 : wl_order ranks2 G' = map f1 (wl_order ranks1 G)).
  { apply wl_order_after; auto. intros n I. apply Fs. apply I1. exact I. }
  destruct (Hrun (wl_order ranks2 G') (canon_rebuild (wl_order ranks2 G') G') En2 (rebuild_relabelled _ _ WG2 En2))
    as (pairs2 & Gc2 & Hc2 & E2 & EG & S1 & S2).
  - intros n I. rewrite Ord2. apply (sigma_of_map f1 Finj).
  - exists pairs2, Gc2, Hc2. unfold canonicalise_wl. rewrite E2. auto.
Qed.

(** string level: CanonRSMI(backend="wl").canonical_rsmi is a fixed point - with tied colours too - relative to the RDKit
    contracts [writer_ok] / [reads_back] and the correspondence of the colours of the second run *)
Theorem canonical_rsmi_fixed_point_wl_ties (W : mgraph -> StrJoin.str) (P : StrJoin.str -> option (mgraph * mgraph)) (ranks1 : list (N * Z)) (G H : mgraph) :
  writer_ok W ->
  parsed G -> parsed H -> shares_atom G H ->
  (forall Gc1 pairs1 Hc1, canonicalise_wl ranks1 G H = Some (Gc1, pairs1, Hc1) -> reads_back W P Gc1 Hc1) ->
  exists s G' H', C09_Strings.canonical_rsmi W (canonicalise_wl ranks1 G H) = Some s /\ P s = Some (G', H') /\
    forall ranks2 : list (N * Z),
      (forall n, In n (node_ids G) -> C08_Model.rank_of ranks2 (sigma_of (wl_order ranks1 G) n) = C08_Model.rank_of ranks1 n) ->
      C09_Strings.canonical_rsmi W (canonicalise_wl ranks2 G' H') = Some s.
Proof.
  intros HW PG PH Hs HP.
  destruct (fixed_point_wl_ties_sg ranks1 G H PG PH Hs) as (pairs1 & Gc1 & Hc1 & E1 & Hfix).
  destruct (HP Gc1 pairs1 Hc1 E1) as (G' & H' & EP & PG2 & PH2 & SG & SH).
  exists (W Gc1 ++ C09_Strings.GG ++ W Hc1), G', H'. rewrite E1. split; [reflexivity|]. split; [exact EP|].
  intros ranks2 Hrk.
  destruct (Hfix ranks2 G' H' PG2 PH2 SG SH Hrk) as (pairs2 & Gc2 & Hc2 & E2 & S1 & S2).
  rewrite E2. unfold C09_Strings.canonical_rsmi. rewrite (HW _ _ S1), (HW _ _ S2). reflexivity.
Qed.

(** non-vacuity: the 1-bromononane witness of C09_WLRefuted has TIED colours (atoms 5 and 6) and the theorem applies to it *)
Definition wt_ranks_after : list (N * Z) :=
  map (fun q : N * Z => (sigma_of (wl_order C09_WLRefuted.wt_ranks1 C09_WLRefuted.wt_G) (fst q), snd q)) C09_WLRefuted.wt_ranks1.
Example ex_fixed_point_wl_ties_hyps :
  parsed C09_WLRefuted.wt_G /\ parsed C09_WLRefuted.wt_H /\
  (forall n, In n (node_ids C09_WLRefuted.wt_G) ->
     C08_Model.rank_of wt_ranks_after (sigma_of (wl_order C09_WLRefuted.wt_ranks1 C09_WLRefuted.wt_G) n) = C08_Model.rank_of C09_WLRefuted.wt_ranks1 n) /\
  ~ ranks_distinct C09_WLRefuted.wt_ranks1 C09_WLRefuted.wt_G.
Proof.
  split; [exact C09_WLRefuted.wt_G_parsed|]. split; [exact C09_WLRefuted.wt_H_parsed|]. split.
  - (* one evaluation for all atoms; the canonical order is named so that it is computed once *)
    assert (K : let m := C08_Model.mapping_of (wl_order C09_WLRefuted.wt_ranks1 C09_WLRefuted.wt_G) in
                let after := map (fun q : N * Z => (C08_Model.apply_map m (fst q), snd q)) C09_WLRefuted.wt_ranks1 in
                forallb (fun n => Z.eqb (C08_Model.rank_of after (C08_Model.apply_map m n)) (C08_Model.rank_of C09_WLRefuted.wt_ranks1 n))
                        (node_ids C09_WLRefuted.wt_G) = true) by (vm_compute; reflexivity).
    cbv zeta in K. intros n I. apply Z.eqb_eq. exact (proj1 (forallb_forall _ _) K n I).
  - intros D. assert (E : 5%N = 6%N) by (apply D; [simpl; auto 20|simpl; auto 20|vm_compute; reflexivity]). discriminate E.
Qed.
