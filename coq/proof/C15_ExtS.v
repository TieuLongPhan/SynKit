(** C15 — paths: the answers come shortest first (breadth-first order); a corollary of the
    order of the answers (proof/C15_ExtL.v). *)
From stdpp Require Import gmap strings sets sorting.
From SK Require Import model.C15_Model model.C15_Ext proof.C15_Proof proof.C15_ExtL.
Local Open Scope string_scope.

Definition shorter (p q : list string) : Prop := (length p ≤ length q)%nat.

Lemma paths_sorted s a b h ps :
  Inv s → paths s a b h None = inr ps → StronglySorted shorter ps.
Proof.
  intros HI Hp. eapply (StronglySorted_weaken _ _ (λ _, True)); [by eapply paths_order_forward|by apply Forall_true|].
  intros p q _ _ [?|[? _]]; unfold shorter; lia.
Qed.
