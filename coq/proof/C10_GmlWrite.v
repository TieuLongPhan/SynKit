(** C10 — proofs: its_decompose and the GML writer on a reaction-centre-shaped ITS graph ([its_ok]); the reader after the
    writer for any graphs carrying the two sides, any context section that lists the unchanged atoms and any list of changed
    atoms; the round trip ITS -> GML -> ITS. *)
From Coq Require Import String List NArith ZArith Bool Lia.
From SK Require Import lib.LGraph lib.StrJoin model.C10_Model proof.C10_Proof proof.C10_Views proof.C10_Build
  proof.C10_GmlRead.
Import ListNotations.
Local Open Scope Z_scope.

Definition ord_of (x : eatt) : Z * Z := match e_ord x with Some (OP a b) => (a, b) | _ => (0, 0) end.

(** ** what [its_ok] gives *)
Lemma its_ok_parts c : its_ok c = true ->
  NoDup (node_ids c) /\ uniq_pairs (gedges c) = true /\
  (forall p, In p (gnodes c) -> its_node_ok (snd p) = true) /\ (forall e, In e (gedges c) -> its_edge_ok c e = true).
Proof.
  unfold its_ok. intros H. apply andb_true_iff in H. destruct H as [H H4]. apply andb_true_iff in H. destruct H as [H H3].
  apply andb_true_iff in H. destruct H as [H1 H2]. rewrite forallb_forall in H3, H4. split; [apply nodupb_NoDup, H1|auto].
Qed.
Lemma its_ok_gwf c : its_ok c = true -> gwf c.
Proof.
  intros H. destruct (its_ok_parts c H) as (H1 & H2 & _ & H4). split; [exact H1|exact H2|].
  intros a b x Hin. specialize (H4 _ Hin). unfold its_edge_ok in H4.
  rewrite !andb_true_iff in H4. tauto.
Qed.
Lemma its_ok_node c n a : its_ok c = true -> label c n = Some a ->
  exists e ar h q ar' h' q', a_tgh a = Some ((e, ar, h, q), (e, ar', h', q')) /\ a_el a = Some e /\ a_ch a = Some q /\ elem_str e.
Proof.
  intros Hok L. destruct (its_ok_parts c Hok) as (_ & _ & H3 & _). apply assoc_in in L.
  specialize (H3 _ L). simpl in H3. unfold its_node_ok in H3.
  destruct (a_tgh a) as [[[[[e ar] h] q] [[[e' ar'] h'] q']]|]; [|discriminate].
  destruct (a_el a) as [el|]; [|discriminate]. destruct (a_ch a) as [ch|]; [|discriminate].
  rewrite !andb_true_iff in H3. destruct H3 as [[[E1 E2] E3] E4].
  apply str_eqb_eq in E1, E2. apply Z.eqb_eq in E4. subst.
  exists e, ar, h, q, ar', h', q'. repeat split; try reflexivity.
  - unfold elem_ok in E3. destruct e; [discriminate|discriminate].
  - unfold elem_ok in E3. destruct e; [discriminate|]. apply Forall_forall. rewrite forallb_forall in E3. exact E3.
Qed.
Lemma its_ok_edge c u v x : its_ok c = true -> adj c u v = Some x ->
  exists a b, x = EA (Some (OP a b)) (Some (a - b)) /\ ord_ok a = true /\ ord_ok b = true /\ (a <> 0 \/ b <> 0) /\
              has_node c u = true /\ has_node c v = true.
Proof.
  intros Hok A. pose proof (its_ok_gwf c Hok) as W. destruct (adj_ends c u v x W A) as [Hu Hv].
  unfold adj in A. apply find_some_in in A. destruct A as (a0 & b0 & Hin & P).
  destruct (its_ok_parts c Hok) as (_ & _ & _ & H4). specialize (H4 _ Hin). unfold its_edge_ok in H4. rewrite !andb_true_iff in H4. destruct H4 as [[[_ Ha] Hb] H4].
  destruct x as [[[o|a b]|] [s|]]; simpl in H4; try discriminate.
  rewrite !andb_true_iff in H4. destruct H4 as [[[O1 O2] O3] O4]. apply Z.eqb_eq in O4. subst s.
  exists a, b. repeat split; auto.
  apply negb_true_iff in O3. apply andb_false_iff in O3. rewrite !Z.eqb_neq in O3. exact O3.
Qed.

(** the same facts as a proposition about the two lookups (so that they transfer between graphs with equal
    lookups, e.g. from the centre to the centre of the centre) *)
Definition node_okP (a : natt) : Prop :=
  exists e ar h q ar' h' q', a_tgh a = Some ((e, ar, h, q), (e, ar', h', q')) /\ a_el a = Some e /\ a_ch a = Some q /\ elem_str e.
Definition edge_okP (c : gr) (u v : N) (x : eatt) : Prop :=
  exists a b, x = EA (Some (OP a b)) (Some (a - b)) /\ ord_ok a = true /\ ord_ok b = true /\ (a <> 0 \/ b <> 0) /\
              has_node c u = true /\ has_node c v = true.
Definition IOK (c : gr) : Prop :=
  gwf c /\ (forall n a, label c n = Some a -> node_okP a) /\ (forall u v x, adj c u v = Some x -> edge_okP c u v x).
Lemma node_okP_halves a : node_okP a ->
  elem_str (tg_el (tG_of a)) /\ tg_el (tH_of a) = tg_el (tG_of a) /\
  a_el a = Some (tg_el (tG_of a)) /\ a_ch a = Some (tg_ch (tG_of a)).
Proof. intros (e & ar & h & q & ar' & h' & q' & Ht & E1 & E2 & He). unfold tG_of, tH_of. rewrite Ht. simpl. auto. Qed.
Lemma its_ok_IOK c : its_ok c = true -> IOK c.
Proof.
  intros H. split; [apply its_ok_gwf; exact H|split].
  - intros n a L. apply (its_ok_node c n a H L).
  - intros u v x A. apply (its_ok_edge c u v x H A).
Qed.
Lemma iok_gwf c : IOK c -> gwf c.
Proof. intros H. apply H. Qed.
Lemma iok_node c n a : IOK c -> label c n = Some a ->
  exists e ar h q ar' h' q', a_tgh a = Some ((e, ar, h, q), (e, ar', h', q')) /\ a_el a = Some e /\ a_ch a = Some q /\ elem_str e.
Proof. intros H L. apply (proj1 (proj2 H) n a L). Qed.
Lemma iok_edge c u v x : IOK c -> adj c u v = Some x ->
  exists a b, x = EA (Some (OP a b)) (Some (a - b)) /\ ord_ok a = true /\ ord_ok b = true /\ (a <> 0 \/ b <> 0) /\
              has_node c u = true /\ has_node c v = true.
Proof. intros H A. apply (proj2 (proj2 H) u v x A). Qed.

Definition dn1 (T : natt -> tg) (p : N * natt) : natt := side_att (T (snd p)) (fst p).
Definition dd (c : gr) (j : bool) (u v : N) : option eatt :=
  match adj c u v with
  | Some x => let o := if j then snd (ord_of x) else fst (ord_of x) in
              if 0 <? o then Some (EA (Some (OS o)) None) else None
  | None => None
  end.
Lemma dd_sym c j u v : dd c j u v = dd c j v u.
Proof. unfold dd. rewrite adj_sym. reflexivity. Qed.
Definition pr (e : N * N * eatt) : N * N := fst e.

Definition side_nodes (c : gr) (T : natt -> tg) : gr := fold_left (nstep (dn1 T)) (gnodes c) g_empty.
Definition side_graph (c : gr) (j : bool) : gr :=
  fold_left (estep (dd c j)) (map pr (edges_iter c)) (side_nodes c (if j then tH_of else tG_of)).

Lemma its_decompose_sides c : IOK c -> its_decompose c = (side_graph c false, side_graph c true).
Proof.
  intros Hok. pose proof (iok_gwf c Hok) as W. unfold its_decompose.
  assert (dec_nodes c (g_empty, g_empty) = (side_nodes c tG_of, side_nodes c tH_of)) as ->.
  { unfold dec_nodes, side_nodes.
    rewrite (fold_left_ext_in _ (fun acc p => (nstep (dn1 tG_of) (fst acc) p, nstep (dn1 tH_of) (snd acc) p))).
    - apply (fold_pair_fst (nstep (dn1 tG_of)) (nstep (dn1 tH_of)) (gnodes c) (g_empty, g_empty)).
    - intros acc [n a] Hin. apply (assoc_nodup_in n (gnodes c) a (gwf_nd c W)) in Hin.
      destruct (iok_node c n a Hok Hin) as (e & ar & h & q & ar' & h' & q' & Ht & _).
      unfold nstep, dn1, tG_of, tH_of. simpl. rewrite Ht. reflexivity. }
  unfold dec_edges, side_graph.
  rewrite (fold_left_ext_in _ (fun acc e => (estep (dd c false) (fst acc) (pr e), estep (dd c true) (snd acc) (pr e)))).
  - rewrite (fold_pair_fst (fun a e => estep (dd c false) a (pr e)) (fun a e => estep (dd c true) a (pr e))).
    simpl. rewrite !fold_left_map'. reflexivity.
  - intros acc [[u v] x] Hin. pose proof (edges_iter_data c u v x W Hin) as A.
    destruct (iok_edge c u v x Hok A) as (a & b & -> & _).
    unfold estep, dd, pr. simpl. rewrite A. simpl. destruct acc as [g1 g2]. simpl.
    destruct (0 <? a); destruct (0 <? b); reflexivity.
Qed.

Lemma side_nodes_label c T n : gwf c ->
  label (side_nodes c T) n = option_map (fun a => side_att (T a) n) (label c n).
Proof.
  intros W. unfold side_nodes. rewrite fold_nstep_label by apply (gwf_nd c W). fold (label c n).
  destruct (label c n); reflexivity.
Qed.
Lemma side_nodes_gedges c T : gedges (side_nodes c T) = [].
Proof. unfold side_nodes. rewrite fold_nstep_gedges. reflexivity. Qed.

Lemma pmatch_map_pr u v l : pmatch u v (map pr l) = has_pair u v l.
Proof. unfold pmatch, has_pair. induction l as [|e r IH]; [reflexivity|]. simpl. rewrite IH. reflexivity. Qed.

Lemma side_graph_gnodes c j : IOK c ->
  gnodes (side_graph c j) = gnodes (side_nodes c (if j then tH_of else tG_of)).
Proof.
  intros Hok. pose proof (iok_gwf c Hok) as W. unfold side_graph. apply fold_estep_node_ids.
  intros e He. apply in_map_iff in He. destruct He as ([[u v] x] & <- & Hin). simpl.
  pose proof (edges_iter_data c u v x W Hin) as A. destruct (iok_edge c u v x Hok A) as (a & b & _ & _ & _ & _ & Hu & Hv).
  apply has_node_label in Hu, Hv. destruct Hu as [au Hu]. destruct Hv as [av Hv].
  split; apply has_node_label; rewrite side_nodes_label by exact W; [rewrite Hu|rewrite Hv]; simpl; eauto.
Qed.
Lemma side_graph_label c j n : IOK c ->
  label (side_graph c j) n = option_map (fun a => side_att ((if j then tH_of else tG_of) a) n) (label c n).
Proof.
  intros Hok. unfold label at 1. rewrite side_graph_gnodes by exact Hok. apply side_nodes_label. apply iok_gwf. exact Hok.
Qed.
Lemma side_graph_gwf c j : gwf (side_graph c j).
Proof. unfold side_graph. apply fold_estep_gwf. unfold side_nodes. apply fold_nstep_gwf. apply gwf_empty. Qed.
Lemma side_graph_adj c j u v : IOK c -> adj (side_graph c j) u v = dd c j u v.
Proof.
  intros Hok. pose proof (iok_gwf c Hok) as W. unfold side_graph.
  rewrite (fold_estep_adj (dd c j) (dd_sym c j)).
  - rewrite pmatch_map_pr, has_pair_edges_iter by exact W. unfold adj at 2. rewrite side_nodes_gedges. simpl.
    unfold dd. destruct (adj c u v); reflexivity.
  - left. unfold adj. rewrite side_nodes_gedges. reflexivity.
Qed.

(** ** the entries the writer emits *)
Definition Eent (d : Z) (e : N * N * eatt) : gent := let '(u, v, x) := e in GEdge u v (order_label_any (e_ord x) d).
Definition Nent (sel : N -> bool) (p : N * natt) : list gent :=
  if sel (fst p) then [GNode (fst p) (node_label (snd p))] else [].

Lemma side_entries_eq g ch :
  side_entries g ch = map (Eent 2) (edges_iter g) ++ flat_map (Nent (fun n => mem n ch)) (gnodes g).
Proof. reflexivity. Qed.
Lemma context_entries_eq g ch :
  context_entries g ch false = flat_map (Nent (fun n => negb (mem n ch))) (gnodes g).
Proof.
  unfold context_entries. rewrite app_nil_r. apply flat_map_ext. intros [n a]. unfold Nent. simpl.
  destruct (mem n ch); reflexivity.
Qed.

Lemma opt_eta {A} (x : option A) : match x with Some y => Some y | None => None end = x.
Proof. destruct x; reflexivity. Qed.

Lemma gn_find_sel sel l n : NoDup (map fst l) ->
  gn_find n (rev (flat_map (Nent sel) l)) =
  match assoc n l with Some a => if sel n then Some (node_label a) else None | None => None end.
Proof.
  induction l as [|[k a0] r IH]; intros Hnd; [reflexivity|]. inversion Hnd as [|? ? Hnot Hnd']; subst.
  simpl flat_map. rewrite rev_app_distr, gn_find_app, (IH Hnd'). simpl assoc.
  destruct (N.eqb_spec n k) as [->|Hne].
  - apply assoc_none_iff in Hnot. rewrite Hnot. unfold Nent. simpl. destruct (sel k); simpl; [rewrite N.eqb_refl|]; reflexivity.
  - assert (gn_find n (rev (Nent sel (k, a0))) = None) as ->.
    { unfold Nent. simpl. destruct (sel k); simpl; [|reflexivity]. destruct (N.eqb_spec k n); [congruence|reflexivity]. }
    destruct (assoc n r); [destruct (sel n)|]; reflexivity.
Qed.

Definition is_gnode (e : gent) : Prop := match e with GNode _ _ => True | GEdge _ _ _ => False end.
Definition is_gedge (e : gent) : Prop := match e with GNode _ _ => False | GEdge _ _ _ => True end.
Lemma gn_find_edges n l : (forall e, In e l -> is_gedge e) -> gn_find n l = None.
Proof.
  induction l as [|e r IH]; intros H; [reflexivity|]. destruct e as [id lab|s t lab].
  - destruct (H (GNode id lab)). left. reflexivity.
  - simpl. apply IH. intros e He. apply H. right. exact He.
Qed.
Lemma ge_find_nodes u v l : (forall e, In e l -> is_gnode e) -> ge_find u v l = None.
Proof.
  induction l as [|e r IH]; intros H; [reflexivity|]. destruct e as [id lab|s t lab].
  - simpl. apply IH. intros e He. apply H. right. exact He.
  - destruct (H (GEdge s t lab)). left. reflexivity.
Qed.
Lemma endp_nodes n l : (forall e, In e l -> is_gnode e) -> endp n l = false.
Proof.
  induction l as [|e r IH]; intros H; [reflexivity|]. destruct e as [id lab|s t lab].
  - simpl. apply IH. intros e He. apply H. right. exact He.
  - destruct (H (GEdge s t lab)). left. reflexivity.
Qed.
Lemma Nent_nodes sel l e : In e (rev (flat_map (Nent sel) l)) -> is_gnode e.
Proof.
  rewrite <- in_rev, in_flat_map. intros (p & _ & H). unfold Nent in H. destruct (sel (fst p)); [|destruct H].
  destruct H as [<-|[]]. exact Logic.I.
Qed.
Lemma Eent_edges d l e : In e (rev (map (Eent d) l)) -> is_gedge e.
Proof. rewrite <- in_rev, in_map_iff. intros ([[u v] x] & <- & _). exact Logic.I. Qed.

Lemma ge_find_some_in u v l s : ge_find u v l = Some s -> exists a b, In (GEdge a b s) l /\ pair_eqb a b u v = true.
Proof.
  induction l as [|[id lab|a b lab] r IH]; [discriminate| |]; simpl.
  - intros H. destruct (IH H) as (a & b & Hin & P). exists a, b. auto.
  - destruct (pair_eqb a b u v) eqn:P.
    + intros [= ->]. exists a, b. auto.
    + intros H. destruct (IH H) as (a' & b' & Hin & P'). exists a', b'. auto.
Qed.
Lemma ge_find_in_some u v l a b s : In (GEdge a b s) l -> pair_eqb a b u v = true -> ge_find u v l <> None.
Proof.
  induction l as [|[id lab|a' b' lab] r IH]; [intros []| |]; simpl.
  - intros [E|H] P; [discriminate|apply IH; assumption].
  - intros [E|H] P.
    + inversion E; subst. rewrite P. discriminate.
    + destruct (pair_eqb a' b' u v); [discriminate|apply IH; assumption].
Qed.

Lemma ge_find_edges_iter (g : gr) d u v : gwf g ->
  ge_find u v (rev (map (Eent d) (edges_iter g))) = option_map (fun x => order_label_any (e_ord x) d) (adj g u v).
Proof.
  intros W. destruct (ge_find u v _) as [s|] eqn:F.
  - apply ge_find_some_in in F. destruct F as (a & b & Hin & P). rewrite <- in_rev, in_map_iff in Hin.
    destruct Hin as ([[a' b'] x] & E & Hin). simpl in E. inversion E; subst.
    apply (edges_iter_data g a b x W) in Hin. rewrite <- (adj_pair g _ _ _ _ P), Hin. reflexivity.
  - destruct (adj g u v) as [x|] eqn:A; [|reflexivity]. exfalso.
    destruct (adj_in_edges_iter g u v x W A) as (a & b & Hin & P).
    apply (ge_find_in_some u v (rev (map (Eent d) (edges_iter g))) a b (order_label_any (e_ord x) d)); [|exact P|exact F].
    rewrite <- in_rev. apply in_map_iff. exists (a, b, x). split; [reflexivity|exact Hin].
Qed.
Lemma endp_edges_iter (g : gr) d n : gwf g -> endp n (rev (map (Eent d) (edges_iter g))) = true -> has_node g n = true.
Proof.
  intros W H. unfold endp in H. apply existsb_exists in H. destruct H as (e & Hin & He).
  rewrite <- in_rev, in_map_iff in Hin. destruct Hin as ([[a b] x] & <- & Hin). simpl in He.
  destruct (edges_iter_ends g a b x W Hin) as [Ha Hb].
  apply orb_true_iff in He. rewrite !N.eqb_eq in He. destruct He as [<-|<-]; assumption.
Qed.

Definition cheq (a b : natt) : bool :=
  match a_ch a, a_ch b with Some x, Some y => x =? y | None, None => true | _, _ => false end.
Lemma mem_app x l1 l2 : mem x (l1 ++ l2) = mem x l1 || mem x l2.
Proof. apply existsb_app. Qed.
Lemma mem_flat_keys {V} (sel : N * V -> bool) n (l : list (N * V)) : NoDup (map fst l) ->
  mem n (flat_map (fun p => if sel p then [fst p] else []) l) = match assoc n l with Some a => sel (n, a) | None => false end.
Proof.
  induction l as [|[k a] r IH]; intros Hnd; [reflexivity|]. inversion Hnd as [|? ? Hnot Hnd']; subst.
  simpl flat_map. rewrite mem_app, (IH Hnd'). simpl assoc. destruct (N.eqb_spec n k) as [->|Hne].
  - apply assoc_none_iff in Hnot. rewrite Hnot, orb_false_r. destruct (sel (k, a)); simpl; rewrite ?N.eqb_refl; reflexivity.
  - destruct (sel (k, a)); simpl; [destruct (N.eqb_spec n k); [contradiction|]|]; reflexivity.
Qed.
Lemma mem_find_changed (Lg Rg : gr) n : NoDup (node_ids Lg) ->
  mem n (find_changed Lg Rg) =
  match label Lg n with
  | Some a => match label Rg n with Some b => negb (cheq a b) | None => false end
  | None => false
  end.
Proof.
  intros Hnd. unfold find_changed.
  rewrite (flat_map_ext _ (fun p => if match label Rg (fst p) with Some b => negb (cheq (snd p) b) | None => false end
                                    then [fst p] else [])).
  - rewrite (mem_flat_keys _ n (gnodes Lg) Hnd). fold (label Lg n). destruct (label Lg n); reflexivity.
  - intros [k a]. simpl. destruct (label Rg k) as [b|]; [|reflexivity].
    unfold cheq. destruct (a_ch a), (a_ch b); try destruct (_ =? _); reflexivity.
Qed.

(** ** reading back what the writer emitted *)
Definition gnode_att (n : N) (e : str) (q : Z) : natt := NA (Some e) None (Some 0) (Some q) (Some (Z.of_N n)) None.
Lemma node_att_label n e q : elem_str e -> node_att n (e ++ charge_to_string q) = gnode_att n e q.
Proof. intros H. unfold node_att. rewrite (label_roundtrip e q H). reflexivity. Qed.
Lemma node_label_side t n : node_label (side_att t n) = tg_el t ++ charge_to_string (tg_ch t).
Proof. destruct t as [[[e a] h] q]. reflexivity. Qed.

Definition T_of (j : bool) : natt -> tg := if j then tH_of else tG_of.

(** a graph that carries one side (j = false: before, j = true: after) of the ITS c, whatever its insertion order and
    whatever else its node dictionaries hold: the GML writer reads only element, charge and the scalar order *)
Record side_like (c : gr) (j : bool) (s : gr) : Prop := {
  sl_wf : gwf s;
  sl_none : forall n, label c n = None -> label s n = None;
  sl_some : forall n a, label c n = Some a ->
            exists b, label s n = Some b /\ a_el b = Some (tg_el (T_of j a)) /\ a_ch b = Some (tg_ch (T_of j a));
  sl_adj : forall u v, adj s u v = dd c j u v }.

Lemma a_ch_side t n : a_ch (side_att t n) = Some (tg_ch t).
Proof. destruct t as [[[e a] h] q]. reflexivity. Qed.
Lemma a_el_side t n : a_el (side_att t n) = Some (tg_el t).
Proof. destruct t as [[[e a] h] q]. reflexivity. Qed.

Lemma side_graph_like c j : IOK c -> side_like c j (side_graph c j).
Proof.
  intros Hok. split.
  - apply side_graph_gwf.
  - intros n L. rewrite side_graph_label, L by exact Hok. reflexivity.
  - intros n a L. rewrite side_graph_label, L by exact Hok. simpl. eexists. split; [reflexivity|].
    unfold T_of. destruct j; rewrite a_el_side, a_ch_side; auto.
  - intros u v. apply side_graph_adj. exact Hok.
Qed.

Definition lftg (s : gr) (ch : list N) : gr := parse_r (rev (side_entries s ch)).

Lemma lft_gn c j s ch n : side_like c j s ->
  gn_find n (rev (side_entries s ch)) =
  match label c n with
  | Some a => if mem n ch then Some (tg_el (T_of j a) ++ charge_to_string (tg_ch (T_of j a))) else None
  | None => None
  end.
Proof.
  intros SL. rewrite side_entries_eq, rev_app_distr, gn_find_app.
  rewrite gn_find_sel by apply (gwf_nd _ (sl_wf _ _ _ SL)).
  rewrite gn_find_edges by (intros e He; exact (Eent_edges _ _ _ He)).
  fold (label s n). destruct (label c n) as [a|] eqn:L.
  - destruct (sl_some _ _ _ SL n a L) as (b & Lb & E1 & E2). rewrite Lb. unfold node_label. rewrite E1, E2. simpl.
    destruct (mem n ch); reflexivity.
  - rewrite (sl_none _ _ _ SL n L). reflexivity.
Qed.

Lemma ord_ok_cases o : ord_ok o = true -> o = 0 \/ o = 2 \/ o = 3 \/ o = 4 \/ o = 6.
Proof.
  unfold ord_ok. intros H. repeat (apply orb_true_iff in H; destruct H as [H|H]); apply Z.eqb_eq in H; tauto.
Qed.
(** a side bond of order o written with its label and read back: order o again, and no bond at all when o = 0 *)
Lemma order_back o : ord_ok o = true ->
  let y := option_map (fun x : eatt => edge_att (order_label_any (e_ord x) 2))
             (if 0 <? o then Some (EA (Some (OS o)) None) else None) in
  match y with Some x => match e_ord x with Some (OS z) => z | _ => 0 end | None => 0 end = o /\ is_some y = (0 <? o).
Proof. intros H. destruct (ord_ok_cases o H) as [->|[->|[->|[->| ->]]]]; simpl; auto. Qed.
Lemma ord_ok_nonneg o : ord_ok o = true -> 0 <= o.
Proof. intros H. destruct (ord_ok_cases o H) as [->|[->|[->|[->| ->]]]]; lia. Qed.

Lemma chg_mem c sL sR n a : side_like c false sL -> side_like c true sR -> label c n = Some a ->
  mem n (find_changed sL sR) = negb (tg_ch (tG_of a) =? tg_ch (tH_of a)).
Proof.
  intros SL SR L. rewrite mem_find_changed by apply (gwf_nd _ (sl_wf _ _ _ SL)).
  destruct (sl_some _ _ _ SL n a L) as (b & Lb & _ & E2). destruct (sl_some _ _ _ SR n a L) as (b' & Lb' & _ & E2').
  rewrite Lb, Lb'. unfold cheq. rewrite E2, E2'. reflexivity.
Qed.

(** ** assembling the ITS from two synchronised sides *)
Lemma assemble c SLg SRg : IOK c ->
  (forall n, label SLg n = option_map (fun a => gnode_att n (tg_el (tG_of a)) (tg_ch (tG_of a))) (label c n)) ->
  (forall n, label SRg n = option_map (fun a => gnode_att n (tg_el (tG_of a)) (tg_ch (tH_of a))) (label c n)) ->
  (forall u v x, adj c u v = Some x ->
     (scal_order SLg u v = fst (ord_of x) /\ is_some (adj SLg u v) = (0 <? fst (ord_of x))) /\
     (scal_order SRg u v = snd (ord_of x) /\ is_some (adj SRg u v) = (0 <? snd (ord_of x)))) ->
  (forall u v, adj c u v = None -> adj SLg u v = None /\ adj SRg u v = None) ->
  let I' := its_construct SLg SRg (union_pairs SLg SRg) in
  (forall n, has_node I' n = has_node c n) /\
  (forall n a, label c n = Some a ->
     label I' n = Some (gml_node n (tg_el (tG_of a)) (tg_ch (tG_of a)) (tg_ch (tH_of a)))) /\
  (forall u v, adj I' u v = adj c u v).
Proof.
  intros Hok HL HR HS HN I'.
  assert (forall n a, label c n = Some a ->
            label I' n = Some (gml_node n (tg_el (tG_of a)) (tg_ch (tG_of a)) (tg_ch (tH_of a)))) as R2.
  { intros n a L. unfold I'.
    assert (exists b, assoc n (its_nodes SLg SRg) = Some b /\ a_am b = Some (Z.of_N n)) as (b & Eb & Hb).
    { rewrite its_nodes_assoc. cbv zeta. destruct (_ <=? _)%nat; [rewrite HL|rewrite HR]; rewrite L; simpl; eexists; split; reflexivity. }
    rewrite (its_construct_label _ _ _ n b Eb). unfold its_node, tg_of. rewrite HL, HR, L. simpl. rewrite Hb. reflexivity. }
  assert (forall u v, adj I' u v = adj c u v) as R3.
  { intros u v. unfold I'. rewrite its_construct_adj. destruct (adj c u v) as [x|] eqn:A.
    - destruct (HS u v x A) as [[S1 I1] [S2 I2]]. unfold its_d. rewrite S1, S2, I1, I2.
      destruct (iok_edge c u v x Hok A) as (a & b & -> & Oa & Ob & Hne & _). unfold ord_of. simpl.
      pose proof (ord_ok_nonneg a Oa). pose proof (ord_ok_nonneg b Ob).
      assert ((0 <? a) || (0 <? b) = true) as -> by (apply orb_true_iff; rewrite !Z.ltb_lt; lia). reflexivity.
    - destruct (HN u v A) as [-> ->]. reflexivity. }
  split; [|split; assumption].
  intros n. apply eq_true_iff_eq. split.
  - unfold I'. intros H. apply its_construct_has_node in H. destruct H as [H|[H|(w & H)]].
    + apply has_node_label in H. destruct H as [b Hb]. rewrite HL in Hb. unfold has_node. destruct (label c n); [reflexivity|discriminate].
    + apply has_node_label in H. destruct H as [b Hb]. rewrite HR in Hb. unfold has_node. destruct (label c n); [reflexivity|discriminate].
    + destruct (adj c n w) as [x|] eqn:A.
      * destruct (iok_edge c n w x Hok A) as (a & b & _ & _ & _ & _ & Hn & _). exact Hn.
      * destruct (HN n w A) as [E1 E2]. rewrite E1, E2 in H. destruct H; discriminate.
  - intros H. apply has_node_label in H. destruct H as [a La]. apply has_node_label. eexists. apply (R2 n a La).
Qed.

(** ** a context section that lists the unchanged atoms of c and, possibly, some of its unchanged bonds *)
Record ctx_like (c : gr) (ch : list N) (B : list gent) : Prop := {
  cl_gn : forall n, gn_find n (rev B) =
                    match label c n with Some a => if mem n ch then None else Some (node_label a) | None => None end;
  cl_ge : forall u v, ge_find u v (rev B) <> None -> dd c false u v <> None /\ dd c true u v <> None;
  cl_endp : forall n, endp n (rev B) = true -> label c n <> None }.

Definition sideB (B : list gent) (s : gr) (ch : list N) : gr := sync_side (parse_r (rev B)) (lftg s ch).

Lemma lftg_adj c j s ch u v : side_like c j s ->
  adj (lftg s ch) u v = option_map (fun x => edge_att (order_label_any (e_ord x) 2)) (dd c j u v).
Proof.
  intros SL. unfold lftg. rewrite parse_adj, side_entries_eq, rev_app_distr, ge_find_app.
  rewrite ge_find_nodes by (intros e He; exact (Nent_nodes _ _ _ He)).
  rewrite ge_find_edges_iter by apply (sl_wf _ _ _ SL). rewrite (sl_adj _ _ _ SL). destruct (dd c j u v); reflexivity.
Qed.
Lemma ctx_sub c j s ch B : side_like c j s -> ctx_like c ch B ->
  forall u v, adj (parse_r (rev B)) u v <> None -> adj (lftg s ch) u v <> None.
Proof.
  intros SL CL u v H. rewrite parse_adj in H. rewrite (lftg_adj c j s ch u v SL).
  assert (ge_find u v (rev B) <> None) as G by (destruct (ge_find u v (rev B)); [discriminate|simpl in H; congruence]).
  destruct (cl_ge _ _ _ CL u v G) as [D1 D2]. destruct j; [destruct (dd c true u v)|destruct (dd c false u v)]; simpl; congruence.
Qed.

Lemma sideB_adj c j s ch B u v : side_like c j s -> ctx_like c ch B ->
  adj (sideB B s ch) u v = option_map (fun x => edge_att (order_label_any (e_ord x) 2)) (dd c j u v).
Proof.
  intros SL CL. unfold sideB. rewrite sync_adj_gen by apply parse_gwf. rewrite <- (lftg_adj c j s ch u v SL).
  destruct (adj (lftg s ch) u v) eqn:A; [reflexivity|].
  destruct (adj (parse_r (rev B)) u v) eqn:A'; [|reflexivity]. exfalso. apply (ctx_sub c j s ch B SL CL u v); congruence.
Qed.

Lemma sideB_label c j s ch B n : IOK c -> side_like c j s -> ctx_like c ch B ->
  (forall a, label c n = Some a -> elem_str (tg_el (T_of j a))) ->
  (forall a, label c n = Some a -> mem n ch = false -> a_el a = Some (tg_el (T_of j a)) /\ a_ch a = Some (tg_ch (T_of j a))) ->
  label (sideB B s ch) n = option_map (fun a => gnode_att n (tg_el (T_of j a)) (tg_ch (T_of j a))) (label c n).
Proof.
  intros Hok SL CL Hel HT. unfold sideB.
  rewrite sync_label_gen by apply parse_gwf.
  rewrite (parse_label (rev B)), (cl_gn _ _ _ CL). unfold lftg. rewrite parse_label, (lft_gn c j s ch n SL).
  destruct (label c n) as [a|] eqn:L; simpl.
  - destruct (mem n ch) eqn:M.
    + rewrite node_att_label by (apply Hel; reflexivity). destruct (endp n (rev B)); simpl; reflexivity.
    + destruct (HT a eq_refl eq_refl) as [E1 E2]. unfold node_label. rewrite E1, E2. simpl.
      rewrite node_att_label by (apply Hel; reflexivity).
      match goal with |- context [endp n (rev (side_entries ?x ?y))] => destruct (endp n (rev (side_entries x y))) end; reflexivity.
  - destruct (endp n (rev B)) eqn:EB; [exfalso; apply (cl_endp _ _ _ CL n EB); exact L|].
    match goal with |- context [endp n ?l] => destruct (endp n l) eqn:E end; [|reflexivity]. exfalso.
    rewrite side_entries_eq, rev_app_distr, endp_app in E.
    rewrite endp_nodes in E by (intros e He; exact (Nent_nodes _ _ _ He)). simpl in E.
    apply endp_edges_iter in E; [|apply (sl_wf _ _ _ SL)]. apply has_node_label in E. destruct E as [b Hb].
    rewrite (sl_none _ _ _ SL n L) in Hb. discriminate.
Qed.

Lemma ctx_like_plain c ch : gwf c -> ctx_like c ch (context_entries c ch false).
Proof.
  intros W. rewrite context_entries_eq. split.
  - intros n. rewrite gn_find_sel by apply (gwf_nd c W). fold (label c n). destruct (label c n); [destruct (mem n ch)|]; reflexivity.
  - intros u v G. exfalso. apply G. apply ge_find_nodes. intros e He. exact (Nent_nodes _ _ _ He).
  - intros n E. rewrite endp_nodes in E by (intros e He; exact (Nent_nodes _ _ _ He)). discriminate.
Qed.

(** the pipeline for ANY list [ch] of atoms written to left/right instead of context, provided the atoms left in the
    context have the same charge on both sides *)
Theorem gml_pipeline_ch c sL sR ch B : IOK c -> side_like c false sL -> side_like c true sR -> ctx_like c ch B ->
  (forall n a, label c n = Some a -> mem n ch = false -> tg_ch (tG_of a) = tg_ch (tH_of a)) ->
  let I' := snd (gml_to_nx [(SLeft, side_entries sL ch); (SContext, B); (SRight, side_entries sR ch)]) in
  (forall n, has_node I' n = has_node c n) /\
  (forall n a, label c n = Some a ->
     label I' n = Some (gml_node n (tg_el (tG_of a)) (tg_ch (tG_of a)) (tg_ch (tH_of a)))) /\
  (forall u v, adj I' u v = adj c u v).
Proof.
  intros Hok SL SR CL Hch I'.
  assert (I' = its_construct (sideB B sL ch) (sideB B sR ch) (union_pairs (sideB B sL ch) (sideB B sR ch))) as ->.
  { unfold I'. rewrite gml_to_nx_three. reflexivity. }
  apply (assemble c _ _ Hok).
  - intros n. apply (sideB_label c false sL ch B n Hok SL CL).
    + intros a L. exact (proj1 (node_okP_halves a (iok_node c n a Hok L))).
    + intros a L _. destruct (node_okP_halves a (iok_node c n a Hok L)) as (_ & _ & E1 & E2). split; assumption.
  - intros n. rewrite (sideB_label c true sR ch B n Hok SR CL).
    + destruct (label c n) as [a|] eqn:L; [|reflexivity]. simpl.
      destruct (node_okP_halves a (iok_node c n a Hok L)) as (_ & E & _). unfold T_of. rewrite E. reflexivity.
    + intros a L. destruct (node_okP_halves a (iok_node c n a Hok L)) as (He & E & _). unfold T_of. rewrite E. exact He.
    + intros a L M. destruct (node_okP_halves a (iok_node c n a Hok L)) as (_ & E & E1 & E2).
      unfold T_of. rewrite E, <- (Hch n a L M). split; assumption.
  - intros u v x A. destruct (iok_edge c u v x Hok A) as (a & b & -> & Oa & Ob & _).
    unfold scal_order. rewrite (sideB_adj c false sL ch B u v SL CL), (sideB_adj c true sR ch B u v SR CL).
    unfold dd. rewrite A. unfold ord_of. simpl. split.
    + exact (order_back a Oa).
    + exact (order_back b Ob).
  - intros u v A. rewrite (sideB_adj c false sL ch B u v SL CL), (sideB_adj c true sR ch B u v SR CL). unfold dd. rewrite A. auto.
Qed.

(** reader after writer on ANY triple (sL, sR, c) whose first two components carry the two sides of c, ANY context section
    that lists the unchanged atoms and possibly some unchanged bonds *)
Theorem gml_pipeline_ctx c sL sR B : IOK c -> side_like c false sL -> side_like c true sR ->
  ctx_like c (find_changed sL sR) B ->
  let ch := find_changed sL sR in
  let I' := snd (gml_to_nx [(SLeft, side_entries sL ch); (SContext, B); (SRight, side_entries sR ch)]) in
  (forall n, has_node I' n = has_node c n) /\
  (forall n a, label c n = Some a ->
     label I' n = Some (gml_node n (tg_el (tG_of a)) (tg_ch (tG_of a)) (tg_ch (tH_of a)))) /\
  (forall u v, adj I' u v = adj c u v).
Proof.
  intros Hok SL SR CL. apply (gml_pipeline_ch c sL sR _ B Hok SL SR CL).
  intros n a L M. rewrite (chg_mem c sL sR n a SL SR L) in M. apply negb_false_iff, Z.eqb_eq in M. exact M.
Qed.

Theorem gml_pipeline c sL sR : IOK c -> side_like c false sL -> side_like c true sR ->
  let ch := find_changed sL sR in
  let I' := snd (gml_to_nx [(SLeft, side_entries sL ch); (SContext, context_entries c ch false); (SRight, side_entries sR ch)]) in
  (forall n, has_node I' n = has_node c n) /\
  (forall n a, label c n = Some a ->
     label I' n = Some (gml_node n (tg_el (tG_of a)) (tg_ch (tG_of a)) (tg_ch (tH_of a)))) /\
  (forall u v, adj I' u v = adj c u v).
Proof. intros Hok SL SR. apply (gml_pipeline_ctx c sL sR _ Hok SL SR), ctx_like_plain, (iok_gwf c Hok). Qed.

Lemma its_to_gml_rec c : IOK c ->
  its_to_gml c false false false =
  let ch := find_changed (side_graph c false) (side_graph c true) in
  [(SLeft, side_entries (side_graph c false) ch); (SContext, context_entries c ch false);
   (SRight, side_entries (side_graph c true) ch)].
Proof. intros Hok. unfold its_to_gml. rewrite its_decompose_sides by exact Hok. reflexivity. Qed.

Theorem gml_roundtrip_iok c : IOK c ->
  let I' := gml_to_its (its_to_gml c false false false) in
  (forall n, has_node I' n = has_node c n) /\
  (forall n a, label c n = Some a ->
     label I' n = Some (gml_node n (tg_el (tG_of a)) (tg_ch (tG_of a)) (tg_ch (tH_of a)))) /\
  (forall u v, adj I' u v = adj c u v).
Proof.
  intros Hok. unfold gml_to_its. rewrite its_to_gml_rec by exact Hok.
  apply (gml_pipeline c _ _ Hok (side_graph_like c false Hok) (side_graph_like c true Hok)).
Qed.

Theorem gml_roundtrip c : its_ok c = true ->
  let I' := gml_to_its (its_to_gml c false false false) in
  (forall n, has_node I' n = has_node c n) /\
  (forall n a, label c n = Some a ->
     label I' n = Some (gml_node n (tg_el (tG_of a)) (tg_ch (tG_of a)) (tg_ch (tH_of a)))) /\
  (forall u v, adj I' u v = adj c u v).
Proof. intros H. apply gml_roundtrip_iok, its_ok_IOK, H. Qed.

(** ** non-vacuity: a centre with a broken, a formed and a weakened bond and two charge changes *)
Local Open Scope string_scope.
Definition ex_nd (el : string) (q q' : Z) (am : Z) : natt :=
  NA (Some (s2l el)) (Some false) (Some 0) (Some q) (Some am) (Some ((s2l el, false, 1, q), (s2l el, true, 0, q'))).
Definition ex_centre : gr :=
  LG [(10%N, ex_nd "C" 0 0 1); (20%N, ex_nd "O" 0 (-1) 2); (30%N, ex_nd "N" 0 1 3)]
     [(10%N, 20%N, EA (Some (OP 2 0)) (Some 2)); (30%N, 10%N, EA (Some (OP 0 2)) (Some (-2)));
      (20%N, 30%N, EA (Some (OP 4 2)) (Some 2))].
Definition ex_back : gr := gml_to_its (its_to_gml ex_centre false false false).
Example gml_roundtrip_ex :
  its_ok ex_centre = true /\
  label ex_back 20%N = Some (gml_node 20%N (s2l "O") 0 (-1)) /\
  adj ex_back 10%N 30%N = Some (EA (Some (OP 0 2)) (Some (-2))) /\
  List.length (flat_map snd (its_to_gml ex_centre false false false)) = 9%nat.
Proof. vm_compute. auto. Qed.
(** the hypothesis matters: an order outside {1, 1.5, 2, 3} is not carried by GML labels *)
Definition ex_bad : gr :=
  LG [(1%N, ex_nd "C" 0 0 1); (2%N, ex_nd "C" 0 0 2)] [(1%N, 2%N, EA (Some (OP 8 2)) (Some 6))].
Example gml_roundtrip_needs_ok :
  its_ok ex_bad = false /\ adj (gml_to_its (its_to_gml ex_bad false false false)) 1%N 2%N <> adj ex_bad 1%N 2%N.
Proof. split; [reflexivity|vm_compute; discriminate]. Qed.
