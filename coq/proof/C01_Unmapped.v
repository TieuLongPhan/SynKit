(** C01 — "the string round trip returns a reaction with the SAME UNMAPPED reactants and products":
    graph level at full strength (no RDKit premise), string level relative to the written-out contracts *)
From Coq Require Import List NArith ZArith Bool String.
From SK Require Import lib.LGraph lib.C01_GraphLemmas model.C01_Model model.C02_Model model.C01_String model.C01_Rsmi model.C01_Prem
  proof.C01_UnmappedDefs proof.C01_Proof proof.C01_StringProof proof.C01_StringHyd proof.C01_StringHydExt proof.C01_StringPipe
  proof.C01_StringPipeH proof.C01_RsmiProof proof.C01_PremProof.
Import ListNotations.
Local Open Scope Z_scope.

(** * folding in two steps = folding at once *)
Lemma preserved_nil (g : mgraph) : preserved g [] = [].
Proof. unfold preserved. induction (gnodes g) as [|p r IH]; [reflexivity|]. cbn [filter memZ existsb]. rewrite andb_false_r. exact IH. Qed.

Lemma count_pres_nil (g : mgraph) n : count_pres g [] n = 0.
Proof. unfold count_pres. rewrite preserved_nil. reflexivity. Qed.

Lemma ih_removed_nil (g : mgraph) n : ih_removed g [] n = is_Hn g n && has_heavy g n.
Proof. unfold ih_removed. rewrite preserved_nil. cbn. rewrite andb_true_r. reflexivity. Qed.

Section Twice.
Variable g : mgraph.
Variable p : list Z.
Hypothesis W : wf g.
Let g1 := implicit_hydrogen g p.

Lemma W1 : wf g1. Proof. apply ih_wf. exact W. Qed.

Lemma kept_isHn m : ih_removed g p m = false -> is_Hn g1 m = is_Hn g m.
Proof. apply ih_kept_isHn. Qed.

Lemma heavy_not_removed m : is_Hn g m = false -> ih_removed g p m = false.
Proof. intros E. unfold ih_removed. rewrite E. reflexivity. Qed.

Lemma has_heavy_kept h : ih_removed g p h = false -> has_heavy g1 h = has_heavy g h.
Proof.
  intros R. apply eq_true_iff_eq. rewrite !has_heavy_spec. split; intros (m & Im & Hm); exists m.
  - apply in_nbrs in Im. unfold g1 in Im. rewrite ih_adj in Im.
    destruct (negb (ih_removed g p h) && negb (ih_removed g p m)) eqn:K; [|congruence]. apply andb_true_iff in K. destruct K as [_ K].
    apply negb_true_iff in K. rewrite (kept_isHn m K) in Hm. split; [apply in_nbrs; exact Im|exact Hm].
  - pose proof (heavy_not_removed m Hm) as K. split; [|rewrite (kept_isHn m K); exact Hm].
    apply in_nbrs. unfold g1. rewrite ih_adj, R, K. cbn. apply in_nbrs. exact Im.
Qed.

Theorem fold_twice : geq_sel (fold_all g1) (fold_all g).
Proof.
  unfold fold_all.
  destruct (implicit_hydrogen_spec g p W) as (L1 & A1 & T1).
  destruct (implicit_hydrogen_spec g1 [] W1) as (L2 & A2 & _).
  destruct (implicit_hydrogen_spec g [] W) as (L3 & A3 & _).
  fold g1 in L1, A1, T1.
  (* which atoms of g survive both ways *)
  assert (forall n, In n (node_ids g) ->
            (ih_removed g p n || ih_removed g1 [] n) = ih_removed g [] n) as RM.
  { intros n In_. rewrite !ih_removed_nil. destruct (ih_removed g p n) eqn:Rn.
    - unfold ih_removed in Rn. apply andb_true_iff in Rn. destruct Rn as [Rn Hh]. apply andb_true_iff in Rn. destruct Rn as [Hn _].
      rewrite Hn, Hh. reflexivity.
    - cbn [orb]. rewrite (kept_isHn n Rn), (has_heavy_kept n Rn). reflexivity. }
  split.
  - intros n. rewrite L2, L3, !preserved_nil. cbn [mem existsb orb].
    destruct (label g n) as [a|] eqn:La.
    + rewrite L1, La. destruct (is_H a) eqn:Ha.
      * (* a hydrogen *)
        assert (is_Hn g n = true) as Hn by (unfold is_Hn; rewrite La; exact Ha).
        destruct (mem n (preserved g p) || negb (has_heavy g n)) eqn:K.
        -- cbn [option_map]. rewrite Ha.
           assert (ih_removed g p n = false) as Rn.
           { unfold ih_removed. rewrite Hn. cbn [andb]. apply orb_true_iff in K. destruct K as [K|K]; [rewrite K; reflexivity|].
             apply negb_true_iff in K. rewrite K. apply andb_false_r. }
           rewrite (has_heavy_kept n Rn). destruct (has_heavy g n); reflexivity.
        -- apply orb_false_iff in K. destruct K as [_ K]. apply negb_false_iff in K. rewrite K. reflexivity.
      * (* another atom: the two increments add up *)
        destruct (T1 n a La Ha) as (a' & La' & Hc & E1 & E2 & E3 & E4 & E5). rewrite L1, La, Ha in La'. inversion La'; subst a'. clear La'.
        cbn [option_map sel4]. unfold is_H. cbn [set_hc g_el]. fold (is_H a). rewrite Ha. cbn [option_map sel4 set_hc g_el g_arom g_hc g_ch].
        rewrite !count_pres_nil, !Z.sub_0_r. cbn [set_hc g_hc] in Hc. rewrite Hc. reflexivity.
    + rewrite L1, La. reflexivity.
  - intros u v. rewrite A2, A1, A3.
    destruct (adj g u v) as [x|] eqn:Ad.
    + apply (wf_adj_iff W) in Ad. assert (In u (node_ids g) /\ In v (node_ids g)) as [Iu Iv]
        by (destruct Ad as [Ad|Ad]; apply (wf_edge_nodes W) in Ad; tauto).
      rewrite <- (RM u Iu), <- (RM v Iv).
      destruct (ih_removed g p u), (ih_removed g p v), (ih_removed g1 [] u), (ih_removed g1 [] v); reflexivity.
    + destruct (negb (ih_removed g1 [] u) && negb (ih_removed g1 [] v)), (negb (ih_removed g p u) && negb (ih_removed g p v)),
        (negb (ih_removed g [] u) && negb (ih_removed g [] v)); reflexivity.
Qed.
End Twice.

(** * graph level, full strength *)

Lemma unmapped_smi (X : mgraph) hl : wf X -> unmapped_eq (smi_graph X hl) X.
Proof.
  intros WX. unfold unmapped_eq. destruct hl as [|z l]; [cbn [smi_graph]; split; reflexivity|]. cbn [smi_graph]. apply fold_twice. exact WX.
Qed.

Lemma unmapped_geq5 (X Y : mgraph) : wf X -> wf Y -> geq5 X Y -> unmapped_eq X Y.
Proof. intros WX WY E. unfold unmapped_eq, fold_all. apply geq5_geq_sel. apply implicit_hydrogen_geq5; assumption. Qed.

Lemma unmapped_trans X Y Z : unmapped_eq X Y -> unmapped_eq Y Z -> unmapped_eq X Z.
Proof. unfold unmapped_eq. apply geq_sel_trans. Qed.

Lemma unmapped_via_smi (X Y : mgraph) hl : wf X -> wf Y -> geq5 X (smi_graph Y hl) -> unmapped_eq X Y.
Proof.
  intros WX WY Q. apply (unmapped_trans _ (smi_graph Y hl)); [|apply unmapped_smi; exact WY].
  apply unmapped_geq5; [exact WX|apply smi_graph_wf; exact WY|exact Q].
Qed.

(** fragments: graphs with the same bonds and the same atoms have the same connected components *)
Lemma conn_geq_sel (g g' : mgraph) u v : geq_sel g g' -> conn g u v -> conn g' u v.
Proof.
  intros E C. induction C as [n I|u v w C IH A].
  - constructor. apply (geq_sel_node_ids g g' n E I).
  - apply (conn_step g' u v w IH). destruct E as [_ EA]. rewrite <- EA. exact A.
Qed.

(** C01_unmapped_graph: no RDKit premise *)
Theorem unmapped_graph (G H : mgraph) : wf G -> wf H -> same_nodes G H -> orders_pos G -> orders_pos H -> amap_id G -> amap_id H ->
  let I := its_construct G H in
  (geq_sel (fst (its_to_graphs I)) (smi_graph G (hlist I)) /\ geq_sel (snd (its_to_graphs I)) (smi_graph H (hlist I))) /\
  (unmapped_eq (fst (its_to_graphs I)) G /\ unmapped_eq (snd (its_to_graphs I)) H) /\
  (forall u v, (conn (fold_all (fst (its_to_graphs I))) u v <-> conn (fold_all G) u v) /\
               (conn (fold_all (snd (its_to_graphs I))) u v <-> conn (fold_all H) u v)).
Proof.
  intros WG WH S PG PH AG AH I.
  destruct (roundtrip G H WG WH S PG PH) as (Rg & Ag & Rh & Ah). fold I in Rg, Ag, Rh, Ah.
  assert (wf I) as WI by (apply its_wf; assumption).
  assert (wf (fst (its_decompose I)) /\ wf (snd (its_decompose I))) as [Wg Wh] by (split; apply dec_wf; exact WI).
  pose proof (geq_sel_amap_geq5 _ _ Rg Ag AG) as Qg. pose proof (geq_sel_amap_geq5 _ _ Rh Ah AH) as Qh.
  assert (geq5 (fst (its_to_graphs I)) (smi_graph G (hlist I)) /\ geq5 (snd (its_to_graphs I)) (smi_graph H (hlist I))) as [Q1 Q2]
    by (unfold its_to_graphs; cbn [fst snd]; split; apply smi_graph_geq5; assumption).
  pose proof (unmapped_via_smi _ G (hlist I) (smi_graph_wf _ (hlist I) Wg) WG Q1) as U1.
  pose proof (unmapped_via_smi _ H (hlist I) (smi_graph_wf _ (hlist I) Wh) WH Q2) as U2.
  split; [split; apply geq5_geq_sel; assumption|]. split; [split; assumption|].
  intros u v. split; split; apply conn_geq_sel; try assumption; apply geq_sel_sym; assumption.
Qed.

(** * the executable test is sound *)
Lemma lab4_eqb_eq x y : lab4_eqb x y = true -> x = y.
Proof.
  destruct x as [[[[e a] h] c]|], y as [[[[e' a'] h'] c']|]; cbn; try discriminate; [|reflexivity]. intros E.
  repeat (apply andb_true_iff in E; destruct E as [E ?]). apply N.eqb_eq in E. apply eqb_prop in H1. apply Z.eqb_eq in H0, H. subst. reflexivity.
Qed.
Lemma optZ_eqb_eq x y : optZ_eqb x y = true -> x = y.
Proof. destruct x, y; cbn; try discriminate; [|reflexivity]. intros E. apply Z.eqb_eq in E. subst. reflexivity. Qed.

Theorem geq_selb_sound (g g' : mgraph) : wf g -> wf g' -> geq_selb g g' = true -> geq_sel g g'.
Proof.
  intros W W' E. unfold geq_selb in E. apply andb_true_iff in E. destruct E as [E1 E2]. rewrite forallb_forall in E1, E2.
  assert (forall n, ~ In n (node_ids g ++ node_ids g') -> label g n = None /\ label g' n = None) as Out.
  { intros n Nn. split.
    - destruct (label g n) eqn:L; [|reflexivity]. exfalso. apply Nn. apply in_or_app. left. eapply label_some_node; eauto.
    - destruct (label g' n) eqn:L; [|reflexivity]. exfalso. apply Nn. apply in_or_app. right. eapply label_some_node; eauto. }
  split.
  - intros n. destruct (in_dec N.eq_dec n (node_ids g ++ node_ids g')) as [I|NI]; [apply lab4_eqb_eq; apply E1; exact I|].
    destruct (Out n NI) as [-> ->]. reflexivity.
  - intros u v.
    assert (forall (X : mgraph) a b, wf X -> ~ In a (node_ids X) \/ ~ In b (node_ids X) -> adj X a b = None) as NoAdj.
    { intros X a b WX Hn. destruct (adj X a b) as [x|] eqn:A; [|reflexivity]. exfalso. apply (wf_adj_iff WX) in A.
      destruct A as [A|A]; apply (wf_edge_nodes WX) in A; tauto. }
    destruct (in_dec N.eq_dec u (node_ids g ++ node_ids g')) as [Iu|Nu]; [destruct (in_dec N.eq_dec v (node_ids g ++ node_ids g')) as [Iv|Nv]|].
    + apply optZ_eqb_eq. specialize (E2 u Iu). rewrite forallb_forall in E2. apply E2. exact Iv.
    + rewrite (NoAdj g u v W), (NoAdj g' u v W'); [reflexivity| |]; right; intros F; apply Nv; apply in_or_app; [right|left]; exact F.
    + rewrite (NoAdj g u v W), (NoAdj g' u v W'); [reflexivity| |]; left; intros F; apply Nu; apply in_or_app; [right|left]; exact F.
Qed.

Theorem unmapped_eqb_sound (m m' : rmol) : rmol_ok m -> rmol_ok m' ->
  (forall u v o, In (u, v, o) (mapped_bonds m) -> u <> v) -> (forall u v o, In (u, v, o) (mapped_bonds m') -> u <> v) ->
  unmapped_eqb m m' = true -> unmapped_eq (graph_of m) (graph_of m').
Proof.
  intros O O' N N' E. unfold unmapped_eq. apply geq_selb_sound; [apply ih_wf; apply graph_of_wf; assumption|apply ih_wf; apply graph_of_wf; assumption|exact E].
Qed.

(** * string level, relative to the contracts on RDKit *)
Lemma unmapped_read_back (m' : rmol) (X : mgraph) : rmol_ok m' -> wf X -> amap_id X -> geq_sel (graph_of m') X ->
  unmapped_eq (graph_of m') X.
Proof.
  intros Om WX AX Gq. apply unmapped_geq5; [apply (graph_of_wf_geq m' _ Om WX Gq)|exact WX|].
  apply geq_sel_amap_geq5; [exact Gq|apply graph_of_amap_id; exact Om|exact AX].
Qed.

Section Str.
Variable rd_read : bool -> string -> option rmol.
Variable rd_write : bool -> wmol -> option string.
Variable ok : mgraph -> Prop.
(** [unm s]: the unmapped form of a side (RDKit: atom maps removed, RemoveHs, canonical SMILES of the fragments, sorted) *)
Variable U : Type.
Variable unm : string -> U.

(** contract CU: the unmapped form of a side RDKit reads is a function of the unmapped molecule graph *)
Definition CU : Prop :=
  forall s s' m m', rd_read true s = Some m -> rd_read true s' = Some m' -> rmol_ok m -> rmol_ok m' ->
    unmapped_eq (graph_of m') (graph_of m) -> unm s' = unm s.

Theorem unmapped_string :
  (forall w s, rd_write true w = Some s -> has_gt s = false) ->
  R2 string (rd_read true) (rd_write true) ok -> CU ->
  forall s r p mr mp, rsmi_parts s = Some (r, p) -> rd_read true r = Some mr -> rd_read true p = Some mp -> rmol_ok mr -> rmol_ok mp ->
  let G := graph_of mr in let H := graph_of mp in
  wf G -> wf H -> same_nodes G H -> orders_pos G -> orders_pos H ->
  forall J s', rsmi_to_its_str rd_read default_ropts s = Ok J -> its_to_rsmi_str rd_write true false false J = Ok s' ->
  exists r' p' mr' mp', rsmi_parts s' = Some (r', p') /\ rd_read true r' = Some mr' /\ rd_read true p' = Some mp' /\
    unmapped_eq (graph_of mr') G /\ unmapped_eq (graph_of mp') H /\ unm r' = unm r /\ unm p' = unm p.
Proof.
  intros W0 HR HU s r p mr mp Ps Rr Rp Okr Okp G H WG WH S PG PH J s' E1 E2. unfold CU in HU.
  destruct (rsmi_string_roundtrip rd_read rd_write ok W0 HR s r p mr mp Ps Rr Rp Okr Okp WG WH S PG PH J s' E1 E2)
    as (EJ & r' & p' & Ps' & mr' & mp' & Rr' & Rp' & Okr' & Okp' & Gr & Gp).
  assert (forall (m' : rmol) (X : mgraph), rmol_ok m' -> wf X -> amap_id X -> geq_sel (graph_of m') (smi_graph X (hlist J)) ->
            unmapped_eq (graph_of m') X) as K.
  { intros m' X Om WX AX Gq. pose proof (smi_graph_wf X (hlist J) WX) as WS.
    apply (unmapped_via_smi _ X (hlist J)); [apply (graph_of_wf_geq m' _ Om WS Gq)|exact WX|].
    apply geq_sel_amap_geq5; [exact Gq|apply graph_of_amap_id; exact Om|apply smi_graph_amap; assumption]. }
  pose proof (K mr' G Okr' WG (graph_of_amap_id mr Okr) Gr) as Ur. pose proof (K mp' H Okp' WH (graph_of_amap_id mp Okp) Gp) as Up.
  exists r', p', mr', mp'. split; [exact Ps'|]. split; [exact Rr'|]. split; [exact Rp'|]. split; [exact Ur|]. split; [exact Up|]. split.
  - apply (HU r r' mr mr' Rr Rr' Okr Okr' Ur).
  - apply (HU p p' mp mp' Rp Rp' Okp Okp' Up).
Qed.

(** the same with the writer option its_to_rsmi(explicit_hydrogen=True) (nothing is folded by SynKit; RemoveHs folds for the
    unmapped form), relative to R1, W0 and CU *)
Theorem unmapped_string_explicit :
  (forall w s, rd_write true w = Some s -> has_gt s = false) ->
  R1 string (rd_read true) (rd_write true) -> CU ->
  forall s r p mr mp, rsmi_parts s = Some (r, p) -> rd_read true r = Some mr -> rd_read true p = Some mp -> rmol_ok mr -> rmol_ok mp ->
  let G := graph_of mr in let H := graph_of mp in
  wf G -> wf H -> same_nodes G H -> orders_pos G -> orders_pos H ->
  forall J s', rsmi_to_its_str rd_read default_ropts s = Ok J -> its_to_rsmi_str rd_write true true false J = Ok s' ->
  exists r' p' mr' mp', rsmi_parts s' = Some (r', p') /\ rd_read true r' = Some mr' /\ rd_read true p' = Some mp' /\
    unmapped_eq (graph_of mr') G /\ unmapped_eq (graph_of mp') H /\ unm r' = unm r /\ unm p' = unm p.
Proof.
  intros W0 HR HU s r p mr mp Ps Rr Rp Okr Okp G H WG WH S PG PH J s' E1 E2. unfold CU in HU.
  destruct (rsmi_string_roundtrip_explicit rd_read rd_write W0 HR s r p mr mp Ps Rr Rp Okr Okp WG WH S PG PH J s' E1 E2)
    as (EJ & r' & p' & Ps' & mr' & mp' & Rr' & Rp' & Okr' & Okp' & Gr & Gp).
  pose proof (unmapped_read_back mr' G Okr' WG (graph_of_amap_id mr Okr) Gr) as Ur.
  pose proof (unmapped_read_back mp' H Okp' WH (graph_of_amap_id mp Okp) Gp) as Up.
  exists r', p', mr', mp'. split; [exact Ps'|]. split; [exact Rr'|]. split; [exact Rp'|]. split; [exact Ur|]. split; [exact Up|]. split.
  - apply (HU r r' mr mr' Rr Rr' Okr Okr' Ur).
  - apply (HU p p' mp mp' Rp Rp' Okp Okp' Up).
Qed.
End Str.

(** * non-vacuity: the reader / writer over Coq strings of C01_rsmi_string_nonvacuous, with [unm] = the string itself *)
Lemma ex_not_unmapped_eq : ~ unmapped_eq (graph_of ex_mr) (graph_of ex_mp) /\ ~ unmapped_eq (graph_of ex_mp) (graph_of ex_mr).
Proof.
  split; intros [L _]; specialize (L 3%N); vm_compute in L; discriminate.
Qed.

Example C01_unmapped_nonvacuous :
  CU ex_sread string (fun s => s) /\
  (exists J, rsmi_to_its_str ex_sread default_ropts "R>>P" = Ok J /\ its_to_rsmi_str ex_swrite true false false J = Ok "R>>P"%string) /\
  unmapped_eq (graph_of ex_mr) (graph_of ex_mr) /\
  fold_all (graph_of C01_RenumWrite.ex_hp) <> graph_of C01_RenumWrite.ex_hp /\
  unmapped_eq (smi_graph (graph_of C01_RenumWrite.ex_hp) [3; 4]) (graph_of C01_RenumWrite.ex_hp).
Proof.
  split; [|split; [|split; [|split]]].
  - intros s s' m m' Rs Rs' _ _ Uq. unfold ex_sread, rd_of, ex_dec in Rs, Rs'.
    destruct (String.eqb_spec s "R") as [->|N1]; [|destruct (String.eqb_spec s "P") as [->|N2]; [|discriminate]];
      (destruct (String.eqb_spec s' "R") as [->|N1']; [|destruct (String.eqb_spec s' "P") as [->|N2']; [|discriminate]]);
      try reflexivity; exfalso; cbn in Rs, Rs'; inversion Rs; inversion Rs'; subst m m'; destruct ex_not_unmapped_eq as [A B]; auto.
  - eexists. split; [reflexivity|vm_compute; reflexivity].
  - split; reflexivity.
  - intros E. vm_compute in E. discriminate.
  - apply unmapped_smi.
    destruct (reaction_okb_sound C01_RenumWrite.ex_hr C01_RenumWrite.ex_hp) as (_ & _ & _ & W & _); [vm_compute; reflexivity|exact W].
Qed.
