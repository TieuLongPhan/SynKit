(** C09 — balance check at graph level: [balancedb] answers true exactly when every element count (implicit
    hydrogens counted as H atoms) and the total charge agree on both sides. *)
From Coq Require Import List NArith ZArith Bool Lia Permutation.
From SK Require Import lib.LGraph model.C01_Model model.C09_Model proof.C09_Lists.
Import ListNotations.
Local Open Scope Z_scope.

Lemma el_count_absent (e : N) (g : mgraph) : ~ In e (elements_of g) -> el_count e g = 0.
Proof.
  unfold elements_of, el_count. intros Hn.
  assert (He : N.eqb e EL_H = false) by (apply N.eqb_neq; intros ->; apply Hn; left; reflexivity).
  assert (Hn' : ~ In e (map (fun p : N * gnode => g_el (snd p)) (gnodes g))) by (intros I; apply Hn; right; exact I).
  clear Hn. induction (gnodes g) as [|p l IH]; simpl; [reflexivity|].
  rewrite IH by (intros I; apply Hn'; right; exact I). rewrite He.
  destruct (N.eqb (g_el (snd p)) e) eqn:E; [|reflexivity].
  apply N.eqb_eq in E. exfalso. apply Hn'. left. exact E.
Qed.

Theorem balance_iff (G H : mgraph) :
  balancedb G H = true <-> (forall e, el_count e G = el_count e H) /\ total_charge G = total_charge H.
Proof.
  unfold balancedb. rewrite andb_true_iff, forallb_forall, Z.eqb_eq. split.
  - intros [Hall Hq]. split; [|exact Hq]. intros e.
    destruct (in_dec N.eq_dec e (elements_of G ++ elements_of H)) as [I|I].
    + apply Z.eqb_eq. apply Hall. exact I.
    + rewrite !el_count_absent; [reflexivity| |]; intros J; apply I; apply in_or_app; auto.
  - intros [Hall Hq]. split; [|exact Hq]. intros e _. apply Z.eqb_eq. apply Hall.
Qed.

(** the count is what it says: atoms of the element plus, for hydrogen, the hydrogen counts *)
Lemma el_count_cons (e : N) (n : N) (a : gnode) ns es :
  el_count e (LG ((n, a) :: ns) es) =
  el_count e (LG ns es) + (if N.eqb (g_el a) e then 1 else 0) + (if N.eqb e EL_H then g_hc a else 0).
Proof. reflexivity. Qed.
Lemma total_charge_cons (n : N) (a : gnode) ns es :
  total_charge (LG ((n, a) :: ns) es) = total_charge (LG ns es) + g_ch a.
Proof. reflexivity. Qed.

(** non-vacuity: methanol + HBr-like toy sides.  CH3-OH (H counted through hcount) vs CH2=O + H-H (explicit) *)
Definition ex_bal_G : mgraph :=
  LG [(1%N, GN 70%N false 3 0 None 1); (2%N, GN 82%N false 1 0 None 2)] [(1%N, 2%N, 2)].
Definition ex_bal_H : mgraph :=
  LG [(1%N, GN 70%N false 2 0 None 1); (2%N, GN 82%N false 0 0 None 2); (3%N, GN EL_H false 0 0 None 3); (4%N, GN EL_H false 0 0 None 4)]
     [(1%N, 2%N, 4); (3%N, 4%N, 2)].
Definition ex_bal_H' : mgraph :=
  LG [(1%N, GN 70%N false 2 0 None 1); (2%N, GN 82%N false 0 (-1) None 2); (3%N, GN EL_H false 0 1 None 3); (4%N, GN EL_H false 0 0 None 4)]
     [(1%N, 2%N, 4)].
Example ex_balanced : balancedb ex_bal_G ex_bal_H = true /\ el_count EL_H ex_bal_G = 4 /\ el_count EL_H ex_bal_H = 4.
Proof. vm_compute. auto. Qed.
Example ex_unbalanced_charge : balancedb ex_bal_G (LG (gnodes ex_bal_H') []) = true /\
  balancedb ex_bal_G (LG [(2%N, GN 82%N false 0 (-1) None 2)] []) = false.
Proof. vm_compute. auto. Qed.

(** dicts_balance_check: nothing is lost or duplicated, and a record lands in the balanced list exactly when its counts
    and charge agree *)
Theorem balance_partition_spec {X} (rs : list (X * (mgraph * mgraph))) :
  Permutation (fst (balance_partition rs) ++ snd (balance_partition rs)) (map fst rs) /\
  (forall x, In x (fst (balance_partition rs)) <->
     exists G H, In (x, (G, H)) rs /\ (forall e, el_count e G = el_count e H) /\ total_charge G = total_charge H) /\
  (forall x, In x (snd (balance_partition rs)) <->
     exists G H, In (x, (G, H)) rs /\ ~ ((forall e, el_count e G = el_count e H) /\ total_charge G = total_charge H)).
Proof.
  unfold balance_partition. simpl. split; [|split].
  - rewrite <- map_app. apply Permutation_map. apply filter_split_perm.
  - intros x. rewrite in_map_iff. split.
    + intros ([y [G H]] & <- & I). apply filter_In in I. destruct I as [I B]. exists G, H. split; [exact I|]. apply balance_iff. exact B.
    + intros (G & H & I & B). exists (x, (G, H)). split; [reflexivity|]. apply filter_In. split; [exact I|]. apply balance_iff. exact B.
  - intros x. rewrite in_map_iff. split.
    + intros ([y [G H]] & <- & I). apply filter_In in I. destruct I as [I B]. exists G, H. split; [exact I|].
      intros C. apply balance_iff in C. unfold bal_of in B. simpl in B. rewrite C in B. discriminate.
    + intros (G & H & I & B). exists (x, (G, H)). split; [reflexivity|]. apply filter_In. split; [exact I|].
      unfold bal_of. simpl. destruct (balancedb G H) eqn:E; [|reflexivity]. exfalso. apply B. apply balance_iff. exact E.
Qed.
Example ex_partition :
  balance_partition [(0%nat, (ex_bal_G, ex_bal_H)); (1%nat, (ex_bal_G, LG [(2%N, GN 82%N false 0 (-1) None 2)] [])); (2%nat, (ex_bal_H, ex_bal_G))]
  = ([0%nat; 2%nat], [1%nat]).
Proof. vm_compute. reflexivity. Qed.
