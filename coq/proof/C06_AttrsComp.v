(** C06 — the component-aware and the fallback strategy on the caller's graphs (attribute
    dictionaries + selections): the second sentence of the property in that vocabulary. *)
From Coq Require Import List NArith Bool Arith Lia Permutation SetoidList Relations.
From SK Require Import lib.LGraph lib.Mono lib.Reach model.C06_Model model.C06_Attrs lib.C06_Spec lib.C06_SelSpec
  proof.C06_All proof.C06_Comp proof.C06_Comps proof.C06_Main proof.C06_Attrs proof.C06_AttrsSpec proof.C06_AttrsEx.
Import ListNotations.

(** connectivity of the caller's graph: reflexive-transitive closure of "joined by an edge" *)
Definition rconn (g : rgraph) : N -> N -> Prop := clos_refl_trans N (fun a b => LGraph.adj g a b <> None).

(** different pattern components go to different host components *)
Definition rseparating (H P : rgraph) (m : mapping) : Prop :=
  forall p h p' h', In (p, h) m -> In (p', h') m -> rconn H h h' -> rconn P p p'.

Lemma adjacent_project na ea (g : rgraph) a b :
  adjacent (project na ea g) a b <-> LGraph.adj g a b <> None.
Proof.
  unfold adjacent. rewrite adj_project. destruct (LGraph.adj g a b); simpl; split; intros Hx; try congruence.
Qed.

Lemma clos_rt_incl {A} (R S : A -> A -> Prop) : (forall a b, R a b -> S a b) ->
  forall a b, clos_refl_trans A R a b -> clos_refl_trans A S a b.
Proof.
  intros HRS a b Hc. induction Hc as [x y Hxy|x|x y z _ IH1 _ IH2];
    [apply rt_step, HRS, Hxy|apply rt_refl|exact (rt_trans _ _ _ _ _ IH1 IH2)].
Qed.

Lemma gconn_project na ea (g : rgraph) a b : gconn (project na ea g) a b <-> rconn g a b.
Proof. split; apply clos_rt_incl; intros x y; apply (adjacent_project na ea). Qed.

Lemma separating_project na ea (H P : rgraph) m :
  separating (project na ea H) (project na ea P) m <-> rseparating H P m.
Proof.
  unfold separating, rseparating. split; intros Hs p h p' h' I1 I2 Hc.
  - apply (gconn_project na ea). apply (Hs p h p' h' I1 I2). apply (gconn_project na ea). exact Hc.
  - apply (gconn_project na ea). apply (Hs p h p' h' I1 I2). apply (gconn_project na ea). exact Hc.
Qed.

(** component-aware strategy, no limits, enumerator run with the closures.  [comps (project na ea g)]
    lists the connectivity classes of [g] (C06_components) and does not depend on the selections
    ([comps_project_sel]). *)
Theorem sel_comp_spec na ea strict (H P : rgraph) :
  rgwf H -> rgwf P ->
  exists T0 : N, forall T : N, (T0 <= T)%N ->
  let R := find_sel (monos_sel na ea H P) (Cfg 1 0 T strict false) na ea H P in
  let hcc := length (comps (project na ea H)) in
  let pcc := length (comps (project na ea P)) in
  NoDupA (@Permutation (N * N)) R /\
  if (0 <? pcc) && (pcc <? hcc) && strict then R = []
  else if hcc <? pcc then
    (forall m, In m R -> is_mono_sel na ea H P m) /\
    (forall m, is_mono_sel na ea H P m -> exists m', In m' R /\ Permutation m m')
  else
    (forall m, In m R -> is_mono_sel na ea H P m /\ rseparating H P m) /\
    (forall m, is_mono_sel na ea H P m -> rseparating H P m -> exists m', In m' R /\ Permutation m m').
Proof.
  intros HH HP.
  pose proof (gwf_project na ea H HH) as GH. pose proof (gwf_project na ea P HP) as GP.
  destruct (comp_spec (monos_on (project na ea H) (project na ea P)) strict _ _ GH GP
              (monos_on_oracle_ok _ _ GH GP)) as (T0 & HT0).
  exists T0. intros T HT. cbv zeta. rewrite find_sel_project.
  specialize (HT0 T HT). cbv zeta in HT0. destruct HT0 as [Hnd Hcase]. split; [exact Hnd|].
  destruct ((0 <? length (comps (project na ea P))) && (length (comps (project na ea P)) <? length (comps (project na ea H))) && strict);
    [exact Hcase|].
  destruct (length (comps (project na ea H)) <? length (comps (project na ea P))).
  - destruct Hcase as [S1 S2]. split.
    + intros m Hm. apply is_mono_project. exact (S1 m Hm).
    + intros m Hm. apply S2. apply is_mono_project. exact Hm.
  - destruct Hcase as [S1 S2]. split.
    + intros m Hm. destruct (S1 m Hm) as [A B]. split; [apply is_mono_project; exact A|apply (separating_project na ea); exact B].
    + intros m Hm Hs. apply S2; [apply is_mono_project; exact Hm|apply (separating_project na ea); exact Hs].
Qed.

(** fallback strategy, no limits: the component-aware result if non-empty, the exhaustive one otherwise *)
Theorem sel_bt_spec na ea strict (H P : rgraph) :
  exists T0 : N, forall T : N, (T0 <= T)%N ->
  find_sel (monos_sel na ea H P) (Cfg 2 0 T strict false) na ea H P =
  match find_sel (monos_sel na ea H P) (Cfg 1 0 T strict false) na ea H P with
  | [] => find_sel (monos_sel na ea H P) (Cfg 0 0 T strict false) na ea H P
  | primary => primary
  end.
Proof.
  destruct (bt_spec_unlimited (monos_sel na ea H P) strict (project na ea H) (project na ea P)) as (T0 & HT0).
  exists T0. intros T HT. unfold find_sel. exact (HT0 T HT).
Qed.

(** the number of components does not depend on the selections *)
Lemma comps_count_sel na ea na' ea' (g : rgraph) :
  length (comps (project na ea g)) = length (comps (project na' ea' g)).
Proof. rewrite (comps_project_sel na ea na' ea' g). reflexivity. Qed.

(** ---------- non-vacuity ---------- *)
(** host of AttrsEx: ethanol-like 1-2-3 plus an isolated O 4 (two components); pattern C-O (one component).
    Skeleton selection: the component-aware search without strict_cc_count finds the separating match,
    with strict_cc_count it returns [] and bt falls back to the exhaustive search *)
Example ex_sel_comp_values :
  find_sel (monos_sel [1%N; 2%N] [] Hr Pr) (Cfg 1 0 5000 false false) [1%N; 2%N] [] Hr Pr = [[(11, 3); (10, 2)]%N] /\
  find_sel (monos_sel [1%N; 2%N] [] Hr Pr) (Cfg 1 0 5000 true false) [1%N; 2%N] [] Hr Pr = [] /\
  find_sel (monos_sel [1%N; 2%N] [] Hr Pr) (Cfg 2 0 5000 true false) [1%N; 2%N] [] Hr Pr = [[(11, 3); (10, 2)]%N] /\
  length (comps (project [1%N; 2%N] [] Hr)) = 2 /\ length (comps (project [1%N; 2%N] [] Pr)) = 1.
Proof. vm_compute. repeat split; reflexivity. Qed.

Example ex_sel_comp_spec : exists T0 : N, forall T : N, (T0 <= T)%N ->
  NoDupA (@Permutation (N * N)) (find_sel (monos_sel [1%N; 2%N] [] Hr Pr) (Cfg 1 0 T false false) [1%N; 2%N] [] Hr Pr).
Proof.
  destruct (sel_comp_spec [1%N; 2%N] [] false Hr Pr Hr_wf Pr_wf) as (T0 & HT0).
  exists T0. intros T HT. exact (proj1 (HT0 T HT)).
Qed.

Example ex_rseparating : rseparating Hr Pr [(11, 3); (10, 2)]%N /\ ~ rconn Hr 3%N 4%N.
Proof.
  split.
  - intros p h p' h' I1 I2 _.
    assert (Hp : (p = 10 \/ p = 11)%N) by (destruct I1 as [E|[E|[]]]; inversion E; auto).
    assert (Hp' : (p' = 10 \/ p' = 11)%N) by (destruct I2 as [E|[E|[]]]; inversion E; auto).
    assert (A : LGraph.adj Pr 10%N 11%N <> None) by (vm_compute; discriminate).
    assert (B : LGraph.adj Pr 11%N 10%N <> None) by (vm_compute; discriminate).
    destruct Hp as [->| ->], Hp' as [->| ->]; try apply rt_refl; apply rt_step; assumption.
  - intros Hc. apply (gconn_project [] [] Hr) in Hc.
    pose proof (gwf_project [] [] Hr Hr_wf) as G.
    destruct (comps_cover _ G 3%N) as (c & Hc3 & Hin3); [vm_compute; auto|].
    assert (In 4%N c) by (apply (proj2 (proj2 (proj2 (comps_class _ G c Hc3))) 3%N 4%N Hin3); exact Hc).
    revert Hc3 Hin3 H. vm_compute. intros [<-|[<-|[]]]; simpl; intuition discriminate.
Qed.

(** the call with every option omitted, on the caller's graphs (threshold 5000 not binding) *)
Theorem sel_default_call na ea (H P : rgraph) :
  rgwf H -> rgwf P ->
  (forall T', (5000 <= T')%N ->
     find_sel (monos_sel na ea H P) (Cfg 1 0 T' true false) na ea H P =
     find_sel (monos_sel na ea H P) (Cfg 1 0 5000 true false) na ea H P) ->
  exists R, find_api (monos_sel na ea H P) SDefault None None None None (project na ea H) (project na ea P) = Result R /\
  let hcc := length (comps (project na ea H)) in
  let pcc := length (comps (project na ea P)) in
  NoDupA (@Permutation (N * N)) R /\
  if (0 <? pcc) && (pcc <? hcc) then R = []
  else if hcc <? pcc then
    (forall m, In m R -> is_mono_sel na ea H P m) /\
    (forall m, is_mono_sel na ea H P m -> exists m', In m' R /\ Permutation m m')
  else
    (forall m, In m R -> is_mono_sel na ea H P m /\ rseparating H P m) /\
    (forall m, is_mono_sel na ea H P m -> rseparating H P m -> exists m', In m' R /\ Permutation m m').
Proof.
  intros HH HP Hnb.
  exists (find_sel (monos_sel na ea H P) (Cfg 1 0 5000 true false) na ea H P). split; [reflexivity|].
  destruct (sel_comp_spec na ea true H P HH HP) as (T0 & HT0). cbv zeta.
  specialize (HT0 (N.max 5000 T0) ltac:(lia)). cbv zeta in HT0.
  rewrite (Hnb (N.max 5000 T0)) in HT0 by lia. rewrite andb_true_r in HT0. exact HT0.
Qed.

(** non-vacuity of [sel_default_call]: its premises hold for the pair of proof/C06_AttrsEx.v (the default call
    returns [] there: the host has two components, the pattern one, strict_cc_count is on by default) *)
Example ex_sel_default_call :
  exists R, find_api (monos_sel [1%N; 2%N] [] Hr Pr) SDefault None None None None (project [1%N; 2%N] [] Hr) (project [1%N; 2%N] [] Pr) = Result R /\ R = [].
Proof.
  destruct (sel_default_call [1%N; 2%N] [] Hr Pr Hr_wf Pr_wf) as (R & HR & _ & Hcase).
  - intros T' HT. apply find_comp_stable; [vm_compute; discriminate|exact HT].
  - exists R. split; [exact HR|].
    assert (E : (0 <? length (comps (project [1%N; 2%N] [] Pr))) && (length (comps (project [1%N; 2%N] [] Pr)) <? length (comps (project [1%N; 2%N] [] Hr))) = true)
      by (vm_compute; reflexivity).
    rewrite E in Hcase. exact Hcase.
Qed.
