(** C14 — the Benchmark facade (model/C14_BenchModel.v): two fit calls on one object — same applier, same cache —, the second over
    other entry contents and in the other direction; by [calls_are_maps] nothing the first call processed reaches the second. *)
From Coq Require Import NArith List.
Import ListNotations.
From SK Require Import model.C14_Model model.C14_BenchModel model.C14_WorkersModel proof.C14_Batch.
Local Open Scope N_scope.

Theorem bench_is_map execute cache_on cmax dd pool rules subs_r subs_p tr outs fin :
  run (list N) execute true cache_on cmax (init _) tr = (true, outs, fin) ->
  client_view tr = batch_prog2 pool (bench_calls rules subs_r subs_p) ->
  Forall (robj_ok pool) rules ->
  bench_entries (fit_outputs2 dd (bench_calls rules subs_r subs_p) (map snd outs)) =
  combine (map (single execute dd (map (rule_content pool) rules) false) subs_r)
          (map (single execute dd (map (rule_content pool) rules) true) subs_p).
Proof.
  intros Hrun Hview Hok.
  rewrite (calls_are_maps execute cache_on cmax dd pool _ tr outs fin Hrun Hview).
  - reflexivity.
  - unfold bench_calls. repeat constructor; exact Hok.
Qed.

(** non-vacuity: one shared rule object, two reactions; the backward pass reads other contents (the product sides) than the
    forward pass, on the same applier with a cache of size 2 (trace produced by the adversarial synthetic environment of
    model/C14_WorkersModel.v: freed addresses are handed out again at once) *)
Definition nvk_exec (s r : N) (inv : bool) : list N := [s + r; if inv then 1 else 0].
Definition nvk_trace : list event :=
  synth (list N) nvk_exec true 2 (init _) (batch_prog2 [50] (bench_calls [RObj 0] [1; 2] [11; 12])).

Example bench_nonvacuous :
  let '(ok, outs, fin) := run (list N) nvk_exec true true 2 (init _) nvk_trace in
  ok = true /\ client_view nvk_trace = batch_prog2 [50] (bench_calls [RObj 0] [1; 2] [11; 12]) /\
  bench_entries (fit_outputs2 true (bench_calls [RObj 0] [1; 2] [11; 12]) (map snd outs)) =
    [([51; 0], [61; 1]); ([52; 0], [62; 1])].
Proof. vm_compute. repeat split; reflexivity. Qed.
