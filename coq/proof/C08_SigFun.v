(** C08 — the signature is a function of the graph as a mathematical object: the serialisation depends only on
    the covered view (serialise_geq_cov); generic and wl/morgan canonical graphs of two presentations of the
    same graph are the same covered graph, hence the same serialisation / digest. *)
From Coq Require Import String List NArith ZArith Bool Arith Lia Permutation.
From SK Require Import lib.LGraph lib.IRSortKeys lib.IRCore lib.StrJoin.
From SK Require Import model.C08_Model proof.C08_Spec proof.C08_Sort proof.C08_Faithful proof.C08_Cov.
From SK Require lib.IRInst.
Import ListNotations.
Open Scope string_scope. Open Scope list_scope. Open Scope nat_scope.

(* ---------------- the serialisation factors through the covered view ---------------- *)
Definition NK (c : N * (list N * Z * bool * Z)) : list Z :=
  let '(n, (e, c0, a, h)) := c in enc_str e ++ [c0; b2z a; h] ++ [Z.of_N n].
Definition NI (c : N * (list N * Z * bool * Z)) : str :=
  let '(n, (e, c0, a, h)) := c in
  decN n ++ lit ":" ++ lit "(" ++ pyrepr e ++ sep2 ++ decZ c0 ++ sep2 ++ pybool a ++ sep2 ++ decZ h ++ lit ")".
Definition sd0 (s : option Z) : Z := match s with Some s => s | None => 0%Z end.
Definition EK (c : N * N * ecv) : list Z :=
  let '(u, v, (o, t, s)) := c in [Z.of_N u; Z.of_N v; o; sd0 s].
Definition OS (o : Z) (t : option Z) : str :=
  match t with None => fl o | Some b => lit "(" ++ fl o ++ sep2 ++ fl b ++ lit ")" end.
Definition EI (c : N * N * ecv) : str :=
  let '(u, v, (o, t, s)) := c in
  let pr := lit "(" ++ decN u ++ sep2 ++ decN v ++ lit ")" in
  pr ++ lit ":" ++ lit "(" ++ pr ++ sep2 ++ OS o t ++ sep2 ++ (match s with Some s => fl s | None => lit "0" end) ++ lit ")".

Lemma nkey_id_cov p : nkey_id p = NK (covn p).
Proof. destruct p as [n [e a c h m]]. unfold nkey_id, nkey, NK, covn, ncov. simpl. rewrite <- app_assoc. reflexivity. Qed.
Lemma node_item_cov p : node_item p = NI (covn p).
Proof. destruct p as [n [e a c h m]]. reflexivity. Qed.
Lemma minmax_idem u v : N.min (N.min u v) (N.max u v) = N.min u v /\ N.max (N.min u v) (N.max u v) = N.max u v.
Proof. lia. Qed.
Lemma ekey_cov e : ekey e = EK (cove e).
Proof. destruct e as [[u v] [o s t]]. reflexivity. Qed.
Lemma edge_item_cov e : edge_item e = EI (cove e).
Proof. destruct e as [[u v] [o s t]]. reflexivity. Qed.

Lemma sort_by_ext {A} (k1 k2 : A -> list Z) l : (forall x, k1 x = k2 x) -> sort_by k1 l = sort_by k2 l.
Proof.
  intros H. induction l as [|x l IH]; simpl; auto. rewrite IH.
  generalize (sort_by k2 l). intros r. induction r as [|y r IHr]; simpl; auto.
  rewrite !H, IHr. reflexivity.
Qed.

Lemma map_cov_sort_nodes (l : list (N * nattr)) : map covn (sort_by nkey_id l) = sort_by NK (map covn l).
Proof. rewrite sort_by_map. f_equal. apply sort_by_ext. intros; apply nkey_id_cov. Qed.
Lemma map_cov_sort_edges (l : list (N * N * eattr)) : map cove (sort_by ekey l) = sort_by EK (map cove l).
Proof. rewrite sort_by_map. f_equal. apply sort_by_ext. intros; apply ekey_cov. Qed.

Lemma serialise_cov g :
  serialise g = lit "N[" ++ join 59%N (map NI (sort_by NK (cov_nodes g))) ++ lit "]|E["
                ++ join 59%N (map EI (sort_by EK (cov_edges g))) ++ lit "]".
Proof.
  unfold serialise, ser_nodes, ser_edges, cov_nodes, cov_edges.
  rewrite <- map_cov_sort_nodes, <- map_cov_sort_edges, !map_map.
  rewrite (map_ext node_item (fun x => NI (covn x))) by (intros; apply node_item_cov).
  rewrite (map_ext edge_item (fun x => EI (cove x))) by (intros; apply edge_item_cov).
  reflexivity.
Qed.

Lemma NK_inj_ids l : NoDup (map fst l) -> forall x y, In x l -> In y l -> NK x = NK y -> x = y.
Proof.
  intros Hnd [n [[[e c] a] h]] [n' [[[e' c'] a'] h']] Hx Hy E. unfold NK in E.
  rewrite !app_assoc in E. apply app_inj_tail in E. destruct E as [_ E]. apply N2Z.inj in E. subst n'.
  clear -Hnd Hx Hy. induction l as [|[k v] l IH]; [contradiction|].
  simpl in Hnd. inversion Hnd as [|? ? Hk Hnd']; subst.
  destruct Hx as [Hx|Hx], Hy as [Hy|Hy].
  - congruence.
  - exfalso. apply Hk. inversion Hx; subst. change n with (fst (n, (e', c', a', h'))). apply in_map. auto.
  - exfalso. apply Hk. inversion Hy; subst. change n with (fst (n, (e, c, a, h))). apply in_map. auto.
  - auto.
Qed.

Lemma EK_inj_simple g : simple g -> forall x y, In x (cov_edges g) -> In y (cov_edges g) -> EK x = EK y -> x = y.
Proof.
  intros Hs [[u v] [[o t] s]] [[u' v'] [[o' t'] s']] Hx Hy E. apply (simple_keys g Hs); auto.
  unfold EK in E. inversion E. simpl. f_equal; apply N2Z.inj; auto.
Qed.

Theorem serialise_geq_cov g h : simple g -> geq_cov g h -> serialise g = serialise h.
Proof.
  intros Hs [H1 H2]. rewrite !serialise_cov.
  rewrite (sort_by_perm_eq NK _ _ H1).
  - rewrite (sort_by_perm_eq EK _ _ H2); [reflexivity|]. apply EK_inj_simple. exact Hs.
  - apply NK_inj_ids. rewrite <- node_ids_cov. apply Hs.
Qed.

(* ---------------- generic ---------------- *)
Lemma generic_order_cov g : map fst (sort_by nkey_id (gnodes g)) = map fst (sort_by NK (cov_nodes g)).
Proof.
  unfold cov_nodes. rewrite <- map_cov_sort_nodes, map_map. reflexivity.
Qed.
Lemma generic_order_eq g h : NoDup (node_ids g) -> Permutation (cov_nodes g) (cov_nodes h) ->
  map fst (sort_by nkey_id (gnodes g)) = map fst (sort_by nkey_id (gnodes h)).
Proof.
  intros Hnd H1. rewrite !generic_order_cov. f_equal. apply sort_by_perm_eq; auto.
  apply NK_inj_ids. rewrite <- node_ids_cov. exact Hnd.
Qed.

(* any two graphs rebuilt in the same node order from the same covered graph *)
Lemma rebuild_same_order g h order : wf g -> wf h -> geq_cov g h -> Permutation order (node_ids g) ->
  serialise (rebuild g order) = serialise (rebuild h order).
Proof.
  intros Hg Hh Hq Hp.
  assert (Hp' : Permutation order (node_ids h)) by (eapply perm_trans; [exact Hp|apply geq_cov_ids; auto]).
  destruct (rebuild_geq_cov g order (proj1 Hg) Hp) as [Hi Hr].
  destruct (rebuild_geq_cov h order (proj1 Hh) Hp') as [Hi' Hr'].
  apply serialise_geq_cov.
  - eapply simple_geq_cov; [apply geq_cov_sym; exact Hr|]. apply simple_relabel; auto.
  - eapply geq_cov_trans; [exact Hr|]. eapply geq_cov_trans; [apply relabel_geq_cov; exact Hq|]. apply geq_cov_sym. exact Hr'.
Qed.

Theorem sig_function_generic g h : wf g -> wf h -> geq_cov g h -> ser_generic g = ser_generic h.
Proof.
  intros Hg Hh Hq. unfold ser_generic, canon_generic.
  rewrite <- (generic_order_eq g h (proj1 Hg) (proj1 Hq)).
  apply rebuild_same_order; auto. apply generic_order_perm.
Qed.

(* ---------------- wl / morgan: for any ranking, the same for both presentations ---------------- *)
Definition incc (v : N) (c : N * N * ecv) : list (N * ecv) :=
  let '(a, b, x) := c in (if N.eqb a v then [(b, x)] else []) ++ (if N.eqb b v then [(a, x)] else []).
Definition inc1 (v : N) (e : N * N * eattr) : list (N * eattr) :=
  let '(a, b, x) := e in (if N.eqb a v then [(b, x)] else []) ++ (if N.eqb b v then [(a, x)] else []).
Definition ce (p : N * eattr) : N * ecv := (fst p, ecov (snd p)).

Lemma inc_flat g v : inc g v = flat_map (inc1 v) (gedges g).
Proof. unfold inc. apply flat_map_ext. intros [[a b] x]. reflexivity. Qed.

Lemma inc1_cov v e : Permutation (map ce (inc1 v e)) (incc v (cove e)).
Proof.
  destruct e as [[a b] x]. unfold inc1, incc, cove.
  destruct (N.le_ge_cases a b) as [H|H].
  - rewrite (N.min_l a b), (N.max_r a b) by lia. rewrite map_app.
    destruct (N.eqb a v), (N.eqb b v); apply Permutation_refl.
  - rewrite (N.min_r a b), (N.max_l a b) by lia. rewrite map_app.
    destruct (N.eqb a v), (N.eqb b v); simpl; try apply Permutation_refl. apply perm_swap.
Qed.

Lemma inc_cov g v : Permutation (map ce (inc g v)) (flat_map (incc v) (cov_edges g)).
Proof.
  rewrite inc_flat. unfold cov_edges. rewrite flat_map_map, map_flat_map.
  apply flat_map_perm_pointwise. intros e _. apply inc1_cov.
Qed.

Lemma inc_geq_cov g h v : geq_cov g h -> Permutation (map ce (inc g v)) (map ce (inc h v)).
Proof.
  intros [_ H]. eapply perm_trans; [apply inc_cov|]. eapply perm_trans; [|apply Permutation_sym, inc_cov].
  apply Permutation_flat_map. exact H.
Qed.

Lemma degree_geq_cov g h v : geq_cov g h -> degree g v = degree h v.
Proof.
  intros H. unfold degree. f_equal. pose proof (Permutation_length (inc_geq_cov g h v H)) as E.
  rewrite !map_length in E. exact E.
Qed.

(* the (rank, degree, id) order only reads the node set and the degrees *)
Lemma rank_order_eq ranks (g h : graph) : (forall v, degree g v = degree h v) -> Permutation (node_ids g) (node_ids h) ->
  sort_by (fun v => [rank_of ranks v; degree h v; Z.of_N v]) (node_ids h)
  = sort_by (fun v => [rank_of ranks v; degree g v; Z.of_N v]) (node_ids g).
Proof.
  intros Hd Hi. rewrite (sort_by_ext _ (fun v => [rank_of ranks v; degree g v; Z.of_N v])) by (intros v; rewrite Hd; reflexivity).
  symmetry. apply sort_by_perm_eq; [exact Hi|]. intros x y _ _ E. inversion E. apply N2Z.inj. auto.
Qed.
Theorem sig_function_rank ranks g h : wf g -> wf h -> geq_cov g h -> ser_rank ranks g = ser_rank ranks h.
Proof.
  intros Hg Hh Hq. unfold ser_rank, canon_rank.
  rewrite (rank_order_eq ranks g h (fun v => degree_geq_cov g h v Hq) (geq_cov_ids g h Hq)).
  apply rebuild_same_order; auto. apply sort_by_perm.
Qed.

(* non-vacuity: two presentations of one graph (other insertion order, flipped edge, other atom maps) *)
Definition sf_g : graph :=
  LG [(7%N, NA [67%N] false 0 0 (Some 1%Z)); (3%N, NA [79%N] false 0 1 None); (5%N, NA [67%N] false 0 0 None)]
     [(7%N, 3%N, EA 2 None); (5%N, 3%N, EA 4 None)].
Definition sf_h : graph :=
  LG [(5%N, NA [67%N] false 0 0 (Some 9%Z)); (7%N, NA [67%N] false 0 0 None); (3%N, NA [79%N] false 0 1 None)]
     [(3%N, 5%N, EA 4 None); (3%N, 7%N, EA 2 None)].
Example sf_ex : ser_generic sf_g = ser_generic sf_h /\ gnodes sf_g <> gnodes sf_h.
Proof. split; [vm_compute; reflexivity|discriminate]. Qed.

(* the signature is the digest of the serialisation: whatever the digest function *)
Theorem signature_function_generic (D : Type) (digest : str -> D) g h : wf g -> wf h -> geq_cov g h ->
  digest (serialise (canon_generic g)) = digest (serialise (canon_generic h)).
Proof. intros Hg Hh Hq. exact (f_equal digest (sig_function_generic g h Hg Hh Hq)). Qed.
Theorem signature_function_rank (D : Type) (digest : str -> D) ranks g h : wf g -> wf h -> geq_cov g h ->
  digest (serialise (canon_rank ranks g)) = digest (serialise (canon_rank ranks h)).
Proof. intros Hg Hh Hq. exact (f_equal digest (sig_function_rank ranks g h Hg Hh Hq)). Qed.
Example sf_ex_premises : wf sf_g /\ wf sf_h /\ geq_cov sf_g sf_h.
Proof.
  split; [apply wfb_sound; reflexivity|]. split; [apply wfb_sound; reflexivity|].
  split; vm_compute.
  - eapply perm_trans; [apply perm_skip; apply perm_swap|apply perm_swap].
  - apply perm_swap.
Qed.

Print Assumptions serialise_geq_cov.
Print Assumptions sig_function_generic.
Print Assumptions sig_function_rank.
