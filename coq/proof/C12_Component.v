(** C12 -- component-wise mode (find_rc_mapping(side='its', component=True), model [find_rc_component]):
    the combined mapping is a common induced mapping of the two (pruned) graphs.
    Ingredients: connected components by the saturation closure of lib/Reach.v are pairwise disjoint and closed under
    adjacency; the stable size sort is a permutation; every per-pair mapping is valid inside its pair of components
    (theorems of proof/C12_Search.v on the induced copies, transported through the orientation swap); mappings of
    different pairs never touch the same atom and no bond joins atoms of different components. *)
From Coq Require Import List NArith ZArith Bool Arith Lia Permutation.
From SK Require Import lib.LGraph lib.Mono lib.Reach model.C12_Model proof.C12_Search proof.C12_Proof proof.C12_Prune.
Import ListNotations.

(** edges join nodes of the graph (always true for a networkx graph) *)
Definition wfe (g : graph) : Prop :=
  forall a b x, In (a, b, x) (gedges g) -> In a (node_ids g) /\ In b (node_ids g).

Definition wfeb (g : graph) : bool :=
  forallb (fun e => LGraph.mem (fst (fst e)) (node_ids g) && LGraph.mem (snd (fst e)) (node_ids g)) (gedges g).

Lemma wfeb_sound g : wfeb g = true -> wfe g.
Proof.
  intros H a b x I. apply (proj1 (forallb_forall _ _) H) in I. apply andb_prop in I.
  split; apply LGraph.mem_spec; apply I.
Qed.

(* ------------------------------------------------------------------ neighbours and adjacency *)
Lemma nbrs_spec (g : graph) u v : In v (nbrs g u) <-> exists x, In (u, v, x) (gedges g) \/ In (v, u, x) (gedges g).
Proof.
  unfold nbrs. rewrite in_flat_map. split.
  - intros ([[a b] x] & I & H). destruct (N.eqb_spec a u) as [->|Ha].
    + destruct H as [<-|[]]. exists x. now left.
    + destruct (N.eqb_spec b u) as [->|Hb]; [|destruct H]. destruct H as [<-|[]]. exists x. now right.
  - intros (x & [I|I]).
    + exists (u, v, x). split; [exact I|]. rewrite N.eqb_refl. now left.
    + exists (v, u, x). split; [exact I|]. destruct (N.eqb_spec v u) as [->|Hn]; [now left|]. rewrite N.eqb_refl. now left.
Qed.

Lemma nbrs_sym (g : graph) u v : In v (nbrs g u) -> In u (nbrs g v).
Proof. rewrite !nbrs_spec. intros (x & H). exists x. tauto. Qed.

Lemma nbrs_in (g : graph) : wfe g -> forall u v, In v (nbrs g u) -> In v (node_ids g).
Proof. intros W u v H. apply nbrs_spec in H. destruct H as (x & [I|I]); apply W in I; tauto. Qed.

Lemma find_edge_in {B} u v (es : list (N * N * B)) x : find_edge u v es = Some x ->
  In (u, v, x) es \/ In (v, u, x) es.
Proof.
  induction es as [|[[a b] y] r IH]; simpl; [discriminate|].
  destruct ((N.eqb a u && N.eqb b v) || (N.eqb a v && N.eqb b u)) eqn:E.
  - intros [= ->]. apply orb_prop in E. destruct E as [E|E]; apply andb_prop in E; destruct E as [E1 E2];
      apply N.eqb_eq in E1, E2; subst; [left|right]; now left.
  - intros H. destruct (IH H); [left|right]; now right.
Qed.

Lemma adj_nbrs (g : graph) u v x : LGraph.adj g u v = Some x -> In v (nbrs g u).
Proof. intros H. apply find_edge_in in H. apply nbrs_spec. exists x. exact H. Qed.

(* ------------------------------------------------------------------ connectivity is an equivalence *)
Section Conn.
Variable g : graph.
Notation C u x := (conn (nbrs g) [u] x).

Lemma conn_trans u x y : C u x -> C x y -> C u y.
Proof.
  intros Hux Hxy. induction Hxy as [z Iz|a b Ha IH Ib].
  - destruct Iz as [<-|[]]. exact Hux.
  - eapply conn_step; eauto.
Qed.

Lemma conn_sym u x : C u x -> C x u.
Proof.
  induction 1 as [z Iz|a b Ha IH Ib].
  - destruct Iz as [<-|[]]. constructor. now left.
  - apply (conn_trans b a u); [|exact IH]. eapply conn_step; [constructor; now left|]. now apply nbrs_sym.
Qed.

Hypothesis W : wfe g.

Lemma comp_closure_spec u : In u (node_ids g) -> forall x, In x (comp_closure g u) <-> C u x.
Proof.
  intros Hu x. unfold comp_closure.
  destruct (saturate (nbrs g) (S (n_nodes g)) [u]) as [R|] eqn:E.
  - apply (saturate_spec (S (n_nodes g)) [u]); [intros y [<-|[]]; constructor; now left|auto|exact E].
  - exfalso. revert E. apply (saturate_fuel (nbrs g) (nbrs_in g W)).
    + constructor; [intros []|constructor].
    + intros y [<-|[]]. exact Hu.
    + unfold n_nodes, node_ids. rewrite map_length. simpl. lia.
Qed.

Lemma comp_closure_incl u : In u (node_ids g) -> incl (comp_closure g u) (node_ids g).
Proof.
  intros Hu x Hx. apply (comp_closure_spec u Hu) in Hx.
  induction Hx as [z Iz|a b Ha IH Ib]; [destruct Iz as [<-|[]]; exact Hu|eapply nbrs_in; eauto].
Qed.

(** what the component list looks like *)
Definition closed (c : list N) : Prop := forall x v e, In x c -> LGraph.adj g x v = Some e -> In v c.

Inductive pdisj : list (list N) -> Prop :=
| pd_nil : pdisj []
| pd_cons c L : (forall d, In d L -> forall x, In x c -> ~ In x d) -> pdisj L -> pdisj (c :: L).

Lemma comps_go_spec todo : forall seen,
  incl todo (node_ids g) ->
  (forall x y, In x seen -> C x y -> In y seen) ->
  let L := comps_go g todo seen in
  (forall c, In c L -> incl c (node_ids g) /\ closed c /\ forall x, In x c -> ~ In x seen) /\ pdisj L /\
  (forall u, In u todo -> In u seen \/ exists c, In c L /\ In u c).
Proof.
  induction todo as [|u rest IH]; intros seen Hin Hseen; simpl.
  - split; [intros c []|]. split; [constructor|intros u []].
  - assert (Hrest : incl rest (node_ids g)) by (intros y Hy; apply Hin; now right).
    destruct (LGraph.mem u seen) eqn:Em.
    { destruct (IH seen Hrest Hseen) as (H1 & H2 & H3). split; [exact H1|]. split; [exact H2|].
      intros v [<-|Hv]; [left; now apply LGraph.mem_spec|now apply H3]. }
    assert (Hu : In u (node_ids g)) by (apply Hin; now left).
    assert (Hnu : ~ In u seen) by (intros I; apply LGraph.mem_spec in I; congruence).
    set (c := comp_closure g u).
    assert (Hc : forall x, In x c <-> C u x) by (apply comp_closure_spec; exact Hu).
    assert (Hcs : forall x, In x c -> ~ In x seen).
    { intros x Hx Hs. apply Hnu. apply (Hseen x u Hs). apply conn_sym. now apply Hc. }
    assert (Hseen' : forall x y, In x (c ++ seen) -> C x y -> In y (c ++ seen)).
    { intros x y Hx Hxy. apply in_or_app. apply in_app_or in Hx. destruct Hx as [Hx|Hx].
      - left. apply Hc. apply (conn_trans u x y); [now apply Hc|exact Hxy].
      - right. eapply Hseen; eauto. }
    destruct (IH (c ++ seen) Hrest Hseen') as (H1 & H2 & H3).
    split; [|split].
    + intros d [<-|Hd].
      * split; [now apply comp_closure_incl|]. split; [|exact Hcs].
        intros x v e Hx Hadj. apply Hc. eapply conn_step; [apply Hc; exact Hx|]. eapply adj_nbrs; eauto.
      * destruct (H1 d Hd) as (A & B & D). split; [exact A|]. split; [exact B|].
        intros x Hx Hs. apply (D x Hx). apply in_or_app. now right.
    + constructor; [|exact H2]. intros d Hd x Hx Hxd. destruct (H1 d Hd) as (_ & _ & D).
      apply (D x Hxd). apply in_or_app. now left.
    + intros v [<-|Hv]; [right; exists c; split; [now left|apply Hc; constructor; now left]|].
      destruct (H3 v Hv) as [I|(d & Id & Iv)]; [|right; exists d; split; [now right|exact Iv]].
      apply in_app_or in I. destruct I as [I|I]; [right; exists c; split; [now left|exact I]|now left].
Qed.

Theorem components_spec :
  (forall c, In c (components g) -> incl c (node_ids g) /\ closed c) /\ pdisj (components g) /\
  (forall u, In u (node_ids g) -> exists c, In c (components g) /\ In u c).
Proof.
  destruct (comps_go_spec (node_ids g) [] (incl_refl _) (fun x y (H : In x []) _ => match H with end)) as (H1 & H2 & H3).
  split; [|split; [exact H2|]].
  - intros c Hc. destruct (H1 c Hc) as (A & B & _). auto.
  - intros u Hu. destruct (H3 u Hu) as [[]|H]. exact H.
Qed.

End Conn.

(* ------------------------------------------------------------------ the stable size sort is a permutation *)
Lemma insert_desc_perm c l : Permutation (insert_desc c l) (c :: l).
Proof.
  induction l as [|d r IH]; simpl; [reflexivity|].
  destruct (length d <? length c); [reflexivity|].
  eapply perm_trans; [apply perm_skip; exact IH|apply perm_swap].
Qed.

Lemma sort_comps_perm l : Permutation (sort_comps l) l.
Proof.
  unfold sort_comps. rewrite <- fold_left_rev_right.
  eapply perm_trans; [apply (fold_insert_perm insert_desc insert_desc_perm)|apply Permutation_sym, Permutation_rev].
Qed.

Lemma pdisj_perm L L' : Permutation L L' -> pdisj L -> pdisj L'.
Proof.
  induction 1 as [|c L L' P IH|c d L|L L' L'' P1 IH1 P2 IH2]; intros H.
  - exact H.
  - inversion H as [|? ? Hc HL]; subst. constructor; [|now apply IH].
    intros d Hd. apply Hc. eapply Permutation_in; [apply Permutation_sym; exact P|exact Hd].
  - inversion H as [|? ? Hd H']; subst. inversion H' as [|? ? Hc HL]; subst.
    constructor.
    + intros e [<-|He] x Hx Hxe; [apply (Hd c (or_introl eq_refl) x Hxe Hx)|apply (Hc e He x Hx Hxe)].
    + constructor; [|exact HL]. intros e He. apply Hd. now right.
  - auto.
Qed.

Lemma sorted_components (g : graph) : wfe g ->
  pdisj (sort_comps (components g)) /\
  forall c, In c (sort_comps (components g)) -> In c (components g) /\ closed g c.
Proof.
  intros W. destruct (components_spec g W) as (S & D & _). split.
  - eapply pdisj_perm; [apply Permutation_sym, sort_comps_perm|exact D].
  - intros c Hc. apply (Permutation_in _ (sort_comps_perm _)) in Hc. split; [exact Hc|now apply S].
Qed.

Lemma wfe_induced (g : graph) keep : wfe g -> wfe (induced_sub g keep).
Proof.
  intros W a b x I. unfold induced_sub in I. simpl in I. apply filter_In in I. destruct I as (I & Hm).
  apply andb_prop in Hm. destruct Hm as [Ha Hb]. apply LGraph.mem_spec in Ha, Hb. destruct (W a b x I) as (Na & Nb).
  split; apply induced_nodes; auto.
Qed.

Lemma wfe_prune prune wc (g : graph) : wfe g -> wfe (prune_graph prune wc g).
Proof. unfold prune_graph. destruct prune; [apply wfe_induced|auto]. Qed.

Section Valid.
Variable nm : option nattr -> option nattr -> bool.
Variable em : eattr -> eattr -> bool.
Hypothesis nm_sym : forall a b, nm a b = nm b a.
Hypothesis em_sym : forall a b, em a b = em b a.
Notation CI := (common_induced nm em).

Lemma ci_nil ga gb : CI ga gb [].
Proof. split; [constructor|]. split; [constructor|]. split; [intros ? ? []|intros ? ? ? ? []]. Qed.

Lemma comp_pair_valid g1 g2 mcs c1 c2 : NoDup (node_ids g1) -> NoDup (node_ids g2) ->
  CI (induced_sub g1 c1) (induced_sub g2 c2) (fst (comp_pair nm em g1 g2 mcs c1 c2)).
Proof.
  intros N1 N2. unfold comp_pair, prepare_orientation.
  destruct (n_nodes (induced_sub g1 c1) <=? n_nodes (induced_sub g2 c2)).
  - pose proof (search_sound nm em _ (induced_sub g2 c2) mcs (induced_nodup g1 c1 N1)) as S.
    destruct (search_subgraphs nm em (induced_sub g1 c1) (induced_sub g2 c2) mcs) as [[[|best r] last] tried]; [apply ci_nil|].
    exact (proj1 (S best (or_introl eq_refl))).
  - pose proof (search_sound nm em _ (induced_sub g1 c1) mcs (induced_nodup g2 c2 N2)) as S.
    destruct (search_subgraphs nm em (induced_sub g2 c2) (induced_sub g1 c1) mcs) as [[[|best r] last] tried]; [apply ci_nil|].
    exact (ci_invert nm em nm_sym em_sym _ _ _ (proj1 (S best (or_introl eq_refl)))).
Qed.

Lemma adj_none_outside (g : graph) c p q : closed g c -> In q c -> ~ In p c -> LGraph.adj g p q = None.
Proof.
  intros Hc Iq Np. destruct (LGraph.adj g p q) as [e|] eqn:E; [|reflexivity].
  exfalso. apply Np. apply (Hc q p e Iq). now rewrite adj_sym.
Qed.

Lemma ci_app g1 g2 c1 c2 acc m : closed g1 c1 -> closed g2 c2 -> CI g1 g2 acc -> CI g1 g2 m ->
  (forall p h, In (p, h) acc -> ~ In p c1 /\ ~ In h c2) -> (forall p h, In (p, h) m -> In p c1 /\ In h c2) ->
  CI g1 g2 (acc ++ m).
Proof.
  intros C1 C2 (A1 & A2 & A3 & A4) (M1 & M2 & M3 & M4) Ha Hm.
  split; [|split; [|split]].
  - rewrite map_app. apply nodup_app; auto. intros p Ia Im. apply in_map_iff in Ia, Im.
    destruct Ia as ([p1 h1] & <- & I1), Im as ([p2 h2] & E & I2). simpl in *. subst p2.
    apply (proj1 (Ha _ _ I1)). exact (proj1 (Hm _ _ I2)).
  - rewrite map_app. apply nodup_app; auto. intros h Ia Im. apply in_map_iff in Ia, Im.
    destruct Ia as ([p1 h1] & <- & I1), Im as ([p2 h2] & E & I2). simpl in *. subst h2.
    apply (proj2 (Ha _ _ I1)). exact (proj2 (Hm _ _ I2)).
  - intros p h I. apply in_app_or in I. destruct I; auto.
  - intros p h p' h' I I' Hne. apply in_app_or in I, I'. destruct I as [I|I], I' as [I'|I'].
    + now apply A4.
    + destruct (Ha _ _ I) as (Np & Nh). destruct (Hm _ _ I') as (Ip' & Ih').
      now rewrite (adj_none_outside g1 c1 p p' C1 Ip' Np), (adj_none_outside g2 c2 h h' C2 Ih' Nh).
    + destruct (Ha _ _ I') as (Np & Nh). destruct (Hm _ _ I) as (Ip & Ih).
      rewrite (adj_sym g1 p p'), (adj_sym g2 h h').
      now rewrite (adj_none_outside g1 c1 p' p C1 Ip Np), (adj_none_outside g2 c2 h' h C2 Ih Nh).
    + now apply M4.
Qed.

(** any valid mappings inside pairwise disjoint, adjacency-closed pairs of node sets combine to a valid mapping *)
Lemma combine_valid g1 g2 : forall (ps : list (list N * list N)) (ms : list mapping) acc,
  Forall2 (fun p m => CI (induced_sub g1 (fst p)) (induced_sub g2 (snd p)) m) ps ms ->
  pdisj (map fst ps) -> pdisj (map snd ps) ->
  (forall p, In p ps -> closed g1 (fst p) /\ closed g2 (snd p)) ->
  CI g1 g2 acc ->
  (forall p h, In (p, h) acc -> forall q, In q ps -> ~ In p (fst q) /\ ~ In h (snd q)) ->
  CI g1 g2 (acc ++ concat ms).
Proof.
  intros ps ms acc F. revert acc. induction F as [|p m ps ms Hm F IH]; intros acc P1 P2 Hc Hacc Hout.
  - simpl. now rewrite app_nil_r.
  - simpl in *. inversion P1 as [|? ? D1 P1']; subst. inversion P2 as [|? ? D2 P2']; subst.
    destruct (proj1 (ci_induced_iff nm em g1 g2 (fst p) (snd p) m) Hm) as (Vm & Im).
    rewrite app_assoc. apply IH; [exact P1'|exact P2'|intros q Hq; apply Hc; now right| |].
    + apply (ci_app g1 g2 (fst p) (snd p));
        [apply Hc; now left|apply Hc; now left|exact Hacc|exact Vm|intros a b I; apply (Hout a b I p); now left|exact Im].
    + intros a b I q Hq. apply in_app_or in I. destruct I as [I|I]; [apply (Hout a b I q); now right|].
      destruct (Im a b I) as (Ia & Ib). split.
      * apply (D1 (fst q)); [now apply in_map|exact Ia].
      * apply (D2 (snd q)); [now apply in_map|exact Ib].
Qed.

Lemma comp_fold_concat g1 g2 mcs ps : forall acc tried,
  fst (comp_fold nm em g1 g2 mcs ps acc tried) =
  acc ++ concat (map (fun p => fst (comp_pair nm em g1 g2 mcs (fst p) (snd p))) ps).
Proof.
  induction ps as [|[c1 c2] r IH]; intros acc tried; simpl; [now rewrite app_nil_r|].
  destruct (comp_pair nm em g1 g2 mcs c1 c2) as [m t]. rewrite IH. simpl. now rewrite app_assoc.
Qed.

Lemma pdisj_combine (L1 L2 : list (list N)) : pdisj L1 -> pdisj L2 ->
  pdisj (map fst (combine L1 L2)) /\ pdisj (map snd (combine L1 L2)).
Proof.
  intros P1. revert L2. induction P1 as [|c1 r1 H1 _ IH]; intros L2 P2; [split; constructor|].
  destruct P2 as [|c2 r2 H2 P2]; [split; constructor|]. destruct (IH r2 P2) as (A & B). simpl. split; constructor; auto.
  - intros d Hd. apply H1. apply in_map_iff in Hd. destruct Hd as ([a b] & <- & I). exact (in_combine_l _ _ _ _ I).
  - intros d Hd. apply H2. apply in_map_iff in Hd. destruct Hd as ([a b] & <- & I). exact (in_combine_r _ _ _ _ I).
Qed.

Theorem componentwise_valid g1 g2 mcs : NoDup (node_ids g1) -> NoDup (node_ids g2) -> wfe g1 -> wfe g2 ->
  CI g1 g2 (fst (componentwise nm em g1 g2 mcs)).
Proof.
  intros N1 N2 W1 W2. unfold componentwise. rewrite comp_fold_concat.
  destruct (sorted_components g1 W1) as (D1 & S1). destruct (sorted_components g2 W2) as (D2 & S2).
  destruct (pdisj_combine _ _ D1 D2) as (P1 & P2).
  apply (combine_valid g1 g2 (combine (sort_comps (components g1)) (sort_comps (components g2))));
    [|exact P1|exact P2| |apply ci_nil|intros p h []].
  - generalize (combine (sort_comps (components g1)) (sort_comps (components g2))).
    intros ps. induction ps as [|p r IH]; simpl; [apply Forall2_nil|apply Forall2_cons; [now apply comp_pair_valid|exact IH]].
  - intros [c1 c2] I. split; [apply S1; exact (in_combine_l _ _ _ _ I)|apply S2; exact (in_combine_r _ _ _ _ I)].
Qed.

End Valid.

(** find_rc_mapping(side='its', component=True): one combined mapping, reported G1 -> G2, valid for the pruned graphs *)
Theorem rc_component_valid defs prune wc (g1 g2 : graph) mcs :
  NoDup (node_ids g1) -> NoDup (node_ids g2) -> wfe g1 -> wfe g2 ->
  exists m t,
    find_rc_component defs prune wc g1 g2 mcs = {| r_maps := [m]; r_last := length m; r_tried := t; r_pattern_is_g1 := true |} /\
    common_induced (node_match defs) edge_match (prune_graph prune wc g1) (prune_graph prune wc g2) m /\
    common_induced (node_match defs) edge_match (prune_graph prune wc g2) (prune_graph prune wc g1) (invert_mapping m).
Proof.
  intros N1 N2 W1 W2. unfold find_rc_component.
  pose proof (componentwise_valid (node_match defs) edge_match (node_match_sym defs) edge_match_sym
                (prune_graph prune wc g1) (prune_graph prune wc g2) mcs
                (prune_nodup prune wc g1 N1) (prune_nodup prune wc g2 N2) (wfe_prune prune wc g1 W1) (wfe_prune prune wc g2 W2)) as V.
  destruct (componentwise (node_match defs) edge_match (prune_graph prune wc g1) (prune_graph prune wc g2) mcs) as [combined tried].
  exists combined, tried. split; [reflexivity|]. split; [exact V|].
  exact (ci_invert _ _ (node_match_sym defs) edge_match_sym _ _ _ V).
Qed.

Theorem component_valid defs prune wc (g1 g2 : graph) mcs :
  NoDup (node_ids g1) -> NoDup (node_ids g2) -> wfe g1 -> wfe g2 ->
  (forall m, In m (get_mappings G1toG2 (find_rc_component defs prune wc g1 g2 mcs)) ->
     common_induced (node_match defs) edge_match (prune_graph prune wc g1) (prune_graph prune wc g2) m /\
     length m = r_last (find_rc_component defs prune wc g1 g2 mcs)) /\
  (forall m, In m (get_mappings G2toG1 (find_rc_component defs prune wc g1 g2 mcs)) ->
     common_induced (node_match defs) edge_match (prune_graph prune wc g2) (prune_graph prune wc g1) m) /\
  length (get_mappings G1toG2 (find_rc_component defs prune wc g1 g2 mcs)) = 1.
Proof.
  intros N1 N2 W1 W2. destruct (rc_component_valid defs prune wc g1 g2 mcs N1 N2 W1 W2) as (m & t & -> & C1 & C2).
  split; [|split; [|reflexivity]].
  - intros m' [<-|[]]. split; [exact C1|reflexivity].
  - intros m' [<-|[]]. exact C2.
Qed.

(* ------------------------------------------------------------------ the component list, stated without [pdisj] *)
Lemma pdisj_nth L : pdisj L -> forall i j, i < j -> j < length L -> forall x, In x (nth i L []) -> ~ In x (nth j L []).
Proof.
  induction 1 as [|c L Hc HL IH]; intros i j Hij Hj x Hx; [simpl in Hj; lia|].
  destruct j as [|j]; [lia|]. simpl in Hj. destruct i as [|i]; simpl in *.
  - apply (Hc (nth j L [])); [apply nth_In; lia|exact Hx].
  - apply (IH i j); [lia|lia|exact Hx].
Qed.

Theorem components_partition (g : graph) : wfe g ->
  (forall c, In c (components g) -> incl c (node_ids g) /\
                                   forall x v e, In x c -> LGraph.adj g x v = Some e -> In v c) /\
  (forall i j, i < j -> j < length (components g) ->
               forall x, In x (nth i (components g) []) -> ~ In x (nth j (components g) [])) /\
  (forall u, In u (node_ids g) -> exists c, In c (components g) /\ In u c).
Proof.
  intros W. destruct (components_spec g W) as (S1 & D & Cov). split; [exact S1|]. split; [now apply pdisj_nth|exact Cov].
Qed.

(* ------------------------------------------------------------------ non-vacuity *)
Module Example_component.
Open Scope N_scope.
Definition nd (i e : N) : N * nattr := (i, (Some e, [Some e])).
(** g1: C1-O2 . N3 . C4=C5      g2: C7=C8 . O9-C10   (sizes 2,1,2 against 2,2; equal sizes keep node order) *)
Definition g1 : graph := LG [nd 1 1; nd 2 2; nd 3 3; nd 4 1; nd 5 1] [((1,2), [Some 2%Z]); ((4,5), [Some 4%Z])].
Definition g2 : graph := LG [nd 7 1; nd 8 1; nd 9 2; nd 10 1] [((7,8), [Some 4%Z]); ((9,10), [Some 2%Z])].
Lemma g1_nodup : NoDup (node_ids g1). Proof. now apply nodupb_spec. Qed.
Lemma g2_nodup : NoDup (node_ids g2). Proof. now apply nodupb_spec. Qed.
Lemma g1_wfe : wfe g1. Proof. now apply wfeb_sound. Qed.
Lemma g2_wfe : wfe g2. Proof. now apply wfeb_sound. Qed.

Definition rc := find_rc_component [9] false 9 g1 g2 true.
Example component_nonvacuous :
  components g1 = [[2; 1]; [3]; [5; 4]] /\ sort_comps (components g1) = [[2; 1]; [5; 4]; [3]] /\
  get_mappings G1toG2 rc = [[(1, 7); (4, 10)]] /\ r_last rc = 2%nat /\
  common_induced (node_match [9]) edge_match g1 g2 [(1, 7); (4, 10)].
Proof.
  split; [vm_compute; reflexivity|]. split; [vm_compute; reflexivity|]. split; [vm_compute; reflexivity|].
  split; [vm_compute; reflexivity|].
  apply (proj1 (component_valid [9] false 9 g1 g2 true g1_nodup g2_nodup g1_wfe g2_wfe) [(1, 7); (4, 10)]).
  vm_compute. now left.
Qed.
End Example_component.
