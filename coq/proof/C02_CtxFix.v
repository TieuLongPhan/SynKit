(** C02 — a reaction centre (a rule graph) is a fixed point of every context extraction: for every radius k the
    radius-k context of get_rc g is get_rc g again (same atoms with the same labels, same bonds), for every label shape;
    find_unequal_order_edges sees the same atoms in a context as in the ITS; witness that theorem 1 needs [std_consistent]. *)
From Coq Require Import List NArith ZArith Bool.
From SK Require Import lib.LGraph lib.C01_GraphLemmas model.C01_Model model.C02_Model model.C02_Store proof.C02_Ball
                       proof.C02_Proof proof.C02_Wfb proof.C02_Ctx proof.C02_StoreCtx proof.C02_StoreEquiv.
Import ListNotations.
Local Open Scope Z_scope.

Theorem ctx_of_centre (g : its) k : wf g -> geq (extract_k (get_rc g) k) (get_rc g).
Proof.
  intros W. destruct k as [|k]; [apply rc_idem; exact W|].
  change (extract_k (get_rc g) (S k)) with (ball_sub (get_rc g) (node_ids (get_rc (get_rc g))) (S k)).
  rewrite ball_sub_all; [apply geq_refl|apply rc_wf; exact W|]. intros n. apply (geq_node_ids _ _ (rc_idem g W)).
Qed.

Example C02_ctx_of_centre_nonvacuous :
  wf ex_its /\ extract_k (get_rc ex_its) 2 = get_rc ex_its /\ length (gnodes (get_rc ex_its)) = 5%nat /\ extract_k ex_its 2 <> get_rc ex_its.
Proof. split; [apply ex_its_wf|]. split; [reflexivity|]. split; [reflexivity|vm_compute; discriminate]. Qed.

Lemma wf_ctx (g : its) : wf g -> forall k, (1 <= k)%nat -> wf (extract_k g k).
Proof. intros W k Hk. destruct k as [|j]; [inversion Hk|]. rewrite extract_k_succ. apply wf_induced. exact W. Qed.

Lemma rc_edge_in_ball (g : its) : wf g -> forall k u v e, adj (get_rc g) u v = Some e ->
  dist_le g (node_ids (get_rc g)) k u /\ dist_le g (node_ids (get_rc g)) k v.
Proof. intros W k u v e A. destruct (adj_some_nodes _ u v e (rc_wf g W) A). split; apply dist_le_seed; assumption. Qed.

(** find_unequal_order_edges sees the same atoms in every context of radius >= 1 as in the ITS (every bond it reports is a centre
    bond, and the context carries the centre), and remove_normal_edges of a context keeps exactly the centre's changed bonds *)
Theorem unequal_of_context (g : its) k : wf g -> (1 <= k)%nat ->
  forall n, In n (unequal_nodes (extract_k g k)) <-> In n (unequal_nodes g).
Proof.
  intros W Hk n. pose proof (wf_ctx g W k Hk) as WC. rewrite !unequal_nodes_spec.
  destruct (ctx_spec g W k Hk) as (_ & _ & A1).
  split; intros (a & b & x & I & U & Hn).
  - assert (adj (extract_k g k) a b = Some x) as Ad by (apply wf_in_adj; assumption). apply A1 in Ad. destruct Ad as (Ad & _).
    apply (wf_adj_iff W) in Ad. destruct Ad as [Ad|Ad]; [exists a, b, x|exists b, a, x]; repeat split; auto. tauto.
  - assert (adj g a b = Some x) as Ad by (apply wf_in_adj; assumption).
    assert (adj (get_rc g) a b = Some x) as Ar by (apply (rc_adj g W); split; [exact Ad|left; apply unequal_changed; exact U]).
    destruct (rc_edge_in_ball g W k a b x Ar) as [Ba Bb].
    assert (adj (extract_k g k) a b = Some x) as Ac by (apply A1; auto).
    apply (wf_adj_iff WC) in Ac. destruct Ac as [Ac|Ac]; [exists a, b, x|exists b, a, x]; repeat split; auto. tauto.
Qed.

Example C02_unequal_of_context_nonvacuous :
  unequal_nodes (extract_k ex_its 1) = unequal_nodes ex_its /\ unequal_nodes ex_its <> [] /\ length (gnodes (extract_k ex_its 1)) = 6%nat.
Proof. split; [reflexivity|]. split; [vm_compute; discriminate|reflexivity]. Qed.

(** the same for every label shape *)
Theorem ctxS_of_centre (g : sits) k : wf g ->
  geq (extract_k_S (get_rc_S K_default false false g) k) (get_rc_S K_default false false g).
Proof.
  intros W. destruct k as [|k]; [apply rcS_idem; [reflexivity|reflexivity|exact W]|].
  change (extract_k_S (get_rc_S K_default false false g) (S k))
    with (ball_sub (get_rc_S K_default false false g) (node_ids (get_rc_S K_default false false (get_rc_S K_default false false g))) (S k)).
  rewrite ball_sub_all; [apply geq_refl|apply rcS_wf; exact W|].
  intros n. apply (geq_node_ids _ _ (rcS_idem K_default false false g eq_refl eq_refl W)).
Qed.

Example C02_ctxS_of_centre_nonvacuous :
  wf (emb_S ctxS_ex) /\ extract_k_S (get_rc_S K_default false false (emb_S ctxS_ex)) 3 = get_rc_S K_default false false (emb_S ctxS_ex) /\
  length (gnodes (get_rc_S K_default false false (emb_S ctxS_ex))) = 4%nat.
Proof. split; [exact (proj1 C02_ctxS_nonvacuous)|]. split; vm_compute; reflexivity. Qed.

(** non-vacuity of the property text as one statement (theorem 48 in props/C02.v) *)
Example C02_property_statement_nonvacuous : wf ex_its /\ std_consistent ex_its /\ gedges (get_rc ex_its) <> [] /\ extract_k ex_its 1 <> extract_k ex_its 2.
Proof. split; [apply ex_its_wf|]. split; [apply ex_its_std|]. split; vm_compute; discriminate. Qed.

(** * "for every ITS graph": the hypothesis [std_consistent] of theorem 1 cannot be dropped — get_rc reads standard_order only.
    Witness: a hand-made ITS whose bond 1-2 has orders (1, 2) but standard_order 0 (no ITSGraph output looks like this: C01_union):
    the orders differ, the bond is not in the centre. *)
Definition ex_incons : its := LG [(1%N, ex_n 70%N); (2%N, ex_n 70%N)] [(1%N, 2%N, IE 2 4 0)].
Theorem rc_edges_inconsistent_refuted :
  wf ex_incons /\ ~ std_consistent ex_incons /\ ~ ia_consistent ex_incons /\
  (exists e, adj ex_incons 1%N 2%N = Some e /\ e_G e <> e_H e) /\ adj (get_rc ex_incons) 1%N 2%N = None.
Proof.
  split; [|split; [|split; [|split]]].
  - apply wfb_sound. reflexivity.
  - intros H. specialize (H 1%N 2%N (IE 2 4 0) (or_introl eq_refl)). simpl in H. discriminate.
  - intros H. specialize (H 1%N 2%N (IE 2 4 0) (or_introl eq_refl)). simpl in H. discriminate.
  - exists (IE 2 4 0). split; [reflexivity|simpl; discriminate].
  - reflexivity.
Qed.
