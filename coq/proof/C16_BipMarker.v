(** C16 — the networkx `bipartite` node marker is an opaque attribute: bipartite_to_hypergraph never reads it.  Nodes are
    classified by `kind` (then by id prefix, then by degree), labels / ids / rules / coefficients come from the other
    attributes; so ANY marker values (default, swapped, booleans, equal, strings) give the same import. *)
From stdpp Require Import gmap strings sets pretty sorting.
From SK Require Import lib.Tok model.C15_Model model.C16_Model proof.C16_Common.
Local Open Scope string_scope.
Local Open Scope list_scope.

Definition strip_marker (nd : bnode) : bnode := BNode None (bn_label nd) (bn_kind nd) (bn_mol nd) (bn_eid nd).
Definition strip_bip (G : bgraph) : bgraph := BGraph (strip_marker <$> b_nodes G) (b_arcs G).

Lemma strip_lookup G n : b_nodes (strip_bip G) !! n = strip_marker <$> b_nodes G !! n.
Proof. apply lookup_fmap. Qed.
Lemma node_label_strip G n : node_label (strip_bip G) n = node_label G n.
Proof. unfold node_label. rewrite strip_lookup. by destruct (b_nodes G !! n). Qed.

Lemma classify_strip ifl G : classify ifl (strip_bip G) = classify ifl G.
Proof. by apply classify_fmap. Qed.

Lemma side_map_strip G spn rnd inc : side_map (strip_bip G) spn rnd inc = side_map G spn rnd inc.
Proof.
  unfold side_map, side_contribs. cbn [b_arcs strip_bip]. f_equal. apply omap_ext_in.
  intros [[u v] a] _. cbn. by rewrite !node_label_strip.
Qed.

Lemma import_rxn_strip ifl G spn acc rnd : import_rxn ifl (strip_bip G) spn acc rnd = import_rxn ifl G spn acc rnd.
Proof.
  unfold import_rxn. destruct acc as [s [e|]]; [done|]. rewrite !side_map_strip, strip_lookup.
  destruct (b_nodes G !! rnd) as [nd|]; done.
Qed.

Lemma import_mols_strip G spn s : import_mols (strip_bip G) spn s = import_mols G spn s.
Proof.
  unfold import_mols. apply foldl_ext_in. intros acc n _. rewrite strip_lookup, node_label_strip.
  by destruct (b_nodes G !! n).
Qed.

Lemma import_ignores_marker ifl G : bipartite_to_hypergraph ifl (strip_bip G) = bipartite_to_hypergraph ifl G.
Proof.
  unfold bipartite_to_hypergraph. rewrite classify_strip. destruct (classify ifl G) as [spn rxn_nodes].
  rewrite (foldl_ext_in (import_rxn ifl (strip_bip G) spn) (import_rxn ifl G spn)) by (intros; apply import_rxn_strip).
  destruct (foldl _ _ _) as [s [e|]]; [done|]. by rewrite import_mols_strip.
Qed.

(** hence: two graphs that differ only in the markers import to the same network *)
Lemma import_marker_independent ifl G1 G2 : strip_bip G1 = strip_bip G2 →
  bipartite_to_hypergraph ifl G1 = bipartite_to_hypergraph ifl G2.
Proof. intros Heq. by rewrite <-(import_ignores_marker ifl G1), Heq, import_ignores_marker. Qed.

(** non-vacuity: reaction marker 0 / species marker 1 (the networkx convention swapped) *)
Definition ex_mk_net : net := mk_net [] [(Some "e1", "R1", [("A", 2%Z)], [("C", 3%Z)])] [("A", "CC")].
Definition ex_mk_fl (s r : Z) : bflags := BFlags (Some "S:") (Some "R:") s r true true true false true true.
Example ex_marker_swapped :
  bool_decide (edges (bipartite_to_hypergraph (default_iflags true) (hypergraph_to_bipartite (ex_mk_fl 1 0) ex_mk_net)).1
               = edges ex_mk_net) = true ∧
  (bn_bip <$> b_nodes (hypergraph_to_bipartite (ex_mk_fl 1 0) ex_mk_net) !! inr "R:e1") = Some (Some 0%Z) ∧
  (bn_bip <$> b_nodes (hypergraph_to_bipartite (ex_mk_fl 1 0) ex_mk_net) !! inr "S:A") = Some (Some 1%Z).
Proof. by vm_compute. Qed.
