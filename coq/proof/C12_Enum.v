(** C12 -- the trusted premise about networkx VF2, made explicit.
    [search_subgraphs_with enum] is MCSMatcher._search_subgraphs with an ARBITRARY enumerator [enum nodes] in the place
    of "GraphMatcher(host, pattern.subgraph(nodes)).subgraph_isomorphisms_iter(), each result inverted and keyed by its
    sorted items"; the model's [search_subgraphs] is the instance [enum := sub_isos] (the verified Mono.monos).
    Theorem [search_enum_indep]: the search uses the enumerator only through the SET of its results per k-subset:
    any enumerator that returns, for every k-subset of the pattern's nodes, the same set as the verified one (in any
    order, with or without repetitions) yields the same set of mappings, the same [last_size] and the same number of
    matcher objects.  So all theorems of props/C12.v hold for the search run with such an enumerator -- this is
    exactly what is assumed about VF2 (and monitored: the ordered result lists are compared on every case).
    Also: no mapping is returned twice, in any mode and direction ([get_mappings_nodup]). *)
From Coq Require Import List NArith ZArith Bool Arith Permutation.
From SK Require Import lib.LGraph lib.Mono model.C12_Model proof.C12_Search proof.C12_Proof.
Import ListNotations.

Section With.
Variable enum : list N -> list mapping.

Definition level_with (pattern : graph) (k : nat) : list mapping :=
  flat_map enum (combs (node_ids pattern) k).

Fixpoint search_loop_with (mcs : bool) (pattern : graph) (k : nat)
         (acc : list mapping) (best tried : nat) : list mapping * nat * nat :=
  match k with
  | O => (acc, best, tried)
  | S k' =>
      if mcs && negb (best =? 0)%nat && (k <? best)%nat then (acc, best, tried)
      else
        let tried' := (tried + length (combs (node_ids pattern) k))%nat in
        let '(acc', level_found) := add_new acc (level_with pattern k) in
        if level_found then
          if mcs then (acc', k, tried')
          else search_loop_with mcs pattern k' acc' k tried'
        else search_loop_with mcs pattern k' acc' best tried'
  end.

Definition search_subgraphs_with (pattern host : graph) (mcs : bool) : list mapping * nat * nat :=
  let max_k := Nat.min (n_nodes pattern) (n_nodes host) in
  let '(maps, best, tried) := search_loop_with mcs pattern max_k [] 0 0 in
  let maps1 := if mcs && negb (best =? 0)%nat then filter (fun m => (length m =? best)%nat) maps else maps in
  let maps2 := sort_results maps1 in
  let last := if negb (best =? 0)%nat then best else match maps2 with m :: _ => length m | [] => O end in
  (maps2, last, tried).
End With.

(** the model is the instance with the verified enumerator *)
Lemma search_loop_is_with nm em mcs pattern host k : forall acc best tried,
  search_loop nm em mcs pattern host k acc best tried =
  search_loop_with (sub_isos nm em pattern host) mcs pattern k acc best tried.
Proof.
  induction k as [|k' IH]; intros acc best tried; [reflexivity|].
  cbn [search_loop search_loop_with]. unfold level_with, level.
  destruct (mcs && negb (best =? 0) && (S k' <? best)); [reflexivity|].
  destruct (add_new acc (flat_map (sub_isos nm em pattern host) (combs (node_ids pattern) (S k')))) as [acc' f].
  destruct f; [destruct mcs; [reflexivity|apply IH]|apply IH].
Qed.

Lemma search_subgraphs_is_with nm em pattern host mcs :
  search_subgraphs nm em pattern host mcs = search_subgraphs_with (sub_isos nm em pattern host) pattern host mcs.
Proof. unfold search_subgraphs, search_subgraphs_with. now rewrite search_loop_is_with. Qed.

(* ------------------------------------------------------------------ dependence on the enumerator: only through sets *)
Definition same_set (a b : list mapping) : Prop := forall m, In m a <-> In m b.

(** two results of the search agree: the same set of mappings, the same [last_size], the same number of matcher objects *)
Definition same_result (r1 r2 : list mapping * nat * nat) : Prop :=
  same_set (fst (fst r1)) (fst (fst r2)) /\ snd (fst r1) = snd (fst r2) /\ snd r1 = snd r2.

Lemma add_new_notfound cands : forall acc acc', add_new acc cands = (acc', false) -> acc' = acc.
Proof.
  induction cands as [|m r IH]; intros acc acc' E; simpl in E; [now inversion E|].
  destruct (seen m acc); [now apply IH|].
  destruct (add_new (acc ++ [m]) r). discriminate.
Qed.

Lemma add_new_same acc1 acc2 c1 c2 : same_set acc1 acc2 -> same_set c1 c2 ->
  same_set (fst (add_new acc1 c1)) (fst (add_new acc2 c2)) /\ snd (add_new acc1 c1) = snd (add_new acc2 c2).
Proof.
  intros Ha Hc. destruct (add_new_spec acc1 c1) as (A1 & F1). destruct (add_new_spec acc2 c2) as (A2 & F2). split.
  - intros m. rewrite A1, A2, (Ha m), (Hc m). reflexivity.
  - apply eq_true_iff_eq. rewrite F1, F2.
    split; intros (m & Hm & Hn); exists m; (split; [now apply Hc|]); intros I; apply Hn; now apply Ha.
Qed.

Section Indep.
Variables e1 e2 : list N -> list mapping.
Variable pattern : graph.
Hypothesis same : forall k c, In c (combs (node_ids pattern) k) -> same_set (e1 c) (e2 c).

Lemma level_same k : same_set (level_with e1 pattern k) (level_with e2 pattern k).
Proof.
  intros m. unfold level_with. rewrite !in_flat_map.
  split; intros (c & Hc & Hm); exists c; (split; [exact Hc|]); now apply (same k c Hc).
Qed.

Lemma search_loop_same mcs k : forall acc1 acc2 best tried a1 b1 t1 a2 b2 t2,
  same_set acc1 acc2 -> (best = 0 -> acc1 = [] /\ acc2 = []) ->
  search_loop_with e1 mcs pattern k acc1 best tried = (a1, b1, t1) ->
  search_loop_with e2 mcs pattern k acc2 best tried = (a2, b2, t2) ->
  same_set a1 a2 /\ b1 = b2 /\ t1 = t2 /\ (b1 = 0 -> a1 = [] /\ a2 = []).
Proof.
  induction k as [|k' IH]; intros acc1 acc2 best tried a1 b1 t1 a2 b2 t2 Ha Hb E1 E2.
  - injection E1 as <- <- <-. injection E2 as <- <- <-. exact (conj Ha (conj eq_refl (conj eq_refl Hb))).
  - cbn [search_loop_with] in E1, E2.
    destruct (mcs && negb (best =? 0) && (S k' <? best)).
    + injection E1 as <- <- <-. injection E2 as <- <- <-. exact (conj Ha (conj eq_refl (conj eq_refl Hb))).
    + destruct (add_new_same acc1 acc2 _ _ Ha (level_same (S k'))) as (Hx & Hf).
      destruct (add_new acc1 (level_with e1 pattern (S k'))) as [x1 f1] eqn:N1.
      destruct (add_new acc2 (level_with e2 pattern (S k'))) as [x2 f2] eqn:N2. simpl in Hx, Hf. subst f2.
      destruct f1.
      * destruct mcs.
        -- injection E1 as <- <- <-. injection E2 as <- <- <-.
           split; [exact Hx|]. split; [reflexivity|]. split; [reflexivity|discriminate].
        -- refine (IH _ _ (S k') _ _ _ _ _ _ _ Hx _ E1 E2). intros H0; discriminate H0.
      * apply add_new_notfound in N1. apply add_new_notfound in N2. subst x1 x2.
        eapply IH; [exact Ha|exact Hb|exact E1|exact E2].
Qed.

Theorem search_enum_indep host mcs :
  same_result (search_subgraphs_with e1 pattern host mcs) (search_subgraphs_with e2 pattern host mcs).
Proof.
  unfold search_subgraphs_with.
  destruct (search_loop_with e1 mcs pattern _ [] 0 0) as [[a1 b1] t1] eqn:E1.
  destruct (search_loop_with e2 mcs pattern _ [] 0 0) as [[a2 b2] t2] eqn:E2.
  destruct (search_loop_same mcs _ [] [] 0 0 a1 b1 t1 a2 b2 t2 (fun m => iff_refl _) (fun _ => conj eq_refl eq_refl) E1 E2)
    as (Ha & <- & <- & Hz).
  split; [|split; [|reflexivity]]; cbn [fst snd].
  - intros m. rewrite !sort_results_in. destruct (mcs && negb (b1 =? 0)); [|exact (Ha m)].
    rewrite !filter_In, (Ha m). reflexivity.
  - destruct b1 as [|b]; [|reflexivity]. destruct (Hz eq_refl) as (-> & ->). reflexivity.
Qed.

End Indep.

(** the statement used by props/C12.v: any enumerator that agrees with the verified one as a set per k-subset *)
Theorem vf2_premise nm em (pattern host : graph) mcs (vf2 : list N -> list mapping) :
  (forall k c, In c (combs (node_ids pattern) k) -> forall m, In m (vf2 c) <-> In m (sub_isos nm em pattern host c)) ->
  (forall m, In m (fst (fst (search_subgraphs_with vf2 pattern host mcs))) <->
             In m (fst (fst (search_subgraphs nm em pattern host mcs)))) /\
  snd (fst (search_subgraphs_with vf2 pattern host mcs)) = snd (fst (search_subgraphs nm em pattern host mcs)) /\
  snd (search_subgraphs_with vf2 pattern host mcs) = snd (search_subgraphs nm em pattern host mcs).
Proof.
  intros H. rewrite search_subgraphs_is_with. exact (search_enum_indep vf2 (sub_isos nm em pattern host) pattern H host mcs).
Qed.

(* ------------------------------------------------------------------ non-vacuity *)
Module Example_enum.
Open Scope N_scope.
Definition nd (i e : N) : N * nattr := (i, (Some e, [Some e])).
Definition ga : graph := LG [nd 1 1; nd 2 1; nd 3 2] [((1,2), [Some 2%Z]); ((2,3), [Some 4%Z])].
Definition gb : graph := LG [nd 10 2; nd 11 1; nd 12 1] [((10,11), [Some 4%Z]); ((11,12), [Some 2%Z])].
(** an enumerator with another order and repetitions: the verified results reversed and doubled *)
Definition vf2' (c : list N) : list mapping :=
  rev (sub_isos (node_match [9]) edge_match ga gb c) ++ sub_isos (node_match [9]) edge_match ga gb c.
Example vf2_premise_nonvacuous :
  search_subgraphs_with vf2' ga gb false = search_subgraphs (node_match [9]) edge_match ga gb false /\
  length (level_with vf2' ga 1) = 10%nat /\ length (level (node_match [9]) edge_match ga gb 1) = 5%nat /\
  snd (fst (search_subgraphs_with vf2' ga gb true)) = snd (fst (search_subgraphs (node_match [9]) edge_match ga gb true)).
Proof.
  split; [vm_compute; reflexivity|]. split; [vm_compute; reflexivity|]. split; [vm_compute; reflexivity|].
  apply (vf2_premise (node_match [9]) edge_match ga gb true vf2').
  intros k c _ m. unfold vf2'. rewrite in_app_iff, <- in_rev. tauto.
Qed.
End Example_enum.

(* ------------------------------------------------------------------ no mapping is returned twice *)
Lemma add_new_nodup cands : forall acc, NoDup acc -> NoDup (fst (add_new acc cands)).
Proof.
  induction cands as [|m r IH]; intros acc Hn; simpl; [exact Hn|].
  destruct (seen m acc) eqn:Es; [now apply IH|].
  specialize (IH (acc ++ [m])). destruct (add_new (acc ++ [m]) r) as [a f']. apply IH.
  apply nodup_app; [exact Hn|repeat constructor; intros []|].
  intros y I [<-|[]]. apply seen_spec in I. congruence.
Qed.

Lemma search_loop_nodup nm em mcs pattern host k : forall acc best tried acc' best' tried',
  NoDup acc -> search_loop nm em mcs pattern host k acc best tried = (acc', best', tried') -> NoDup acc'.
Proof.
  induction k as [|k' IH]; intros acc best tried acc' best' tried' Hn E; [simpl in E; inversion E; now subst|].
  cbn [search_loop] in E.
  destruct (mcs && negb (best =? 0) && (S k' <? best)); [inversion E; now subst|].
  destruct (add_new acc (level nm em pattern host (S k'))) as [a f] eqn:Ea.
  pose proof (add_new_nodup (level nm em pattern host (S k')) acc Hn) as Hna. rewrite Ea in Hna.
  destruct f; [destruct mcs; [inversion E; now subst|eapply IH; eauto]|eapply IH; eauto].
Qed.

Theorem search_results_nodup nm em pattern host mcs : NoDup (fst (fst (search_subgraphs nm em pattern host mcs))).
Proof.
  unfold search_subgraphs.
  destruct (search_loop nm em mcs pattern host (Nat.min (n_nodes pattern) (n_nodes host)) [] 0 0) as [[acc best] tr] eqn:E.
  cbn [fst]. pose proof (search_loop_nodup _ _ _ _ _ _ _ _ _ _ _ _ (NoDup_nil _) E) as Hn.
  eapply Permutation_NoDup; [apply Permutation_sym, sort_results_perm|].
  destruct (mcs && negb (best =? 0)); [now apply NoDup_filter|exact Hn].
Qed.

Lemma map_invert_nodup (l : list mapping) : NoDup l -> NoDup (map invert_mapping l).
Proof.
  apply FinFun.Injective_map_NoDup. intros x y E. now rewrite <- (invert_involutive x), E, invert_involutive.
Qed.

Theorem get_mappings_nodup defs prune wc (g1 g2 : graph) mcs d :
  NoDup (get_mappings d (find_common_subgraph defs prune wc g1 g2 mcs)).
Proof.
  destruct (fcs_maps_search defs prune wc g1 g2 mcs) as (pattern & host & E).
  assert (Hn : NoDup (r_maps (find_common_subgraph defs prune wc g1 g2 mcs))) by (rewrite E; apply search_results_nodup).
  destruct d; cbn [get_mappings]; [exact Hn| |]; destruct (r_pattern_is_g1 _); try apply map_invert_nodup; exact Hn.
Qed.

Module Example_nodup.
Import Example_enum.
(** the level enumerates the mapping {1->12, 2->11} etc. once per k-subset; with the doubled enumerator every mapping is
    produced twice and the [seen] set removes the copies *)
Example no_duplicates_nonvacuous :
  length (get_mappings G1toG2 (find_common_subgraph [9] false 9 ga gb false)) = 10%nat /\
  NoDup (get_mappings G1toG2 (find_common_subgraph [9] false 9 ga gb false)) /\
  length (fst (fst (search_subgraphs_with vf2' ga gb false))) = 10%nat.
Proof. split; [vm_compute; reflexivity|]. split; [apply get_mappings_nodup|vm_compute; reflexivity]. Qed.
End Example_nodup.
