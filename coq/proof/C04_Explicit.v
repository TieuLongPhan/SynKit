(** C04 — the _explicit_h stage does not change the reaction in implicit-hydrogen normal form: every hydrogen atom it
    re-materialises hangs on its donor (reactant side) / recipient (product side) only, so folding it back
    ([h_to_implicit]) gives the side of the ITS before the stage, exactly.  With C04_identity_glue_default this takes the
    default mode to the end of its_list.  Uses proof/C03_ExplicitH.v / C03_ExplicitShape.v (structure of [explicit_h]). *)
From Coq Require Import List NArith ZArith Bool Lia.
From SK Require Import lib.LGraph model.C03_Model model.C03_Order model.C04_Model proof.C03_Proof proof.C03_Glue proof.C03_StripCounts
                       proof.C03_ExplicitH proof.C03_ExplicitShape proof.C03_Ord proof.C04_Glue proof.C04_Template proof.C04_Default.
Import ListNotations.
Local Open Scope Z_scope.

(** * lists *)
Lemma assoc_app_none {V} (l1 l2 : list (N * V)) k : assoc k l1 = None -> assoc k (l1 ++ l2) = assoc k l2.
Proof. induction l1 as [|[k' v'] r IH]; simpl; [reflexivity|]. destruct (N.eqb k k'); [discriminate|exact IH]. Qed.
Lemma assoc_not_key {V} (l : list (N * V)) k : ~ In k (map fst l) -> assoc k l = None.
Proof.
  induction l as [|[k' v'] r IH]; simpl; [reflexivity|]. intros H. destruct (N.eqb_spec k k') as [->|Hne]; [exfalso; apply H; left; reflexivity|].
  apply IH. intros I. apply H. right. exact I.
Qed.
Lemma map_id_in {X} (f : X -> X) (l : list X) : (forall x, In x l -> f x = x) -> map f l = l.
Proof. induction l as [|x r IH]; simpl; intros H; [reflexivity|]. rewrite (H x (or_introl eq_refl)), IH; [reflexivity|]. intros y I. apply H. right. exact I. Qed.
Lemma flat_map_nil_all {X Y} (f : X -> list Y) (l : list X) : (forall x, In x l -> f x = []) -> flat_map f l = [].
Proof. induction l as [|x r IH]; simpl; intros H; [reflexivity|]. rewrite (H x (or_introl eq_refl)). apply IH. intros y I. apply H. right. exact I. Qed.

(** * folding pendant hydrogen atoms of a molecule graph *)
Definition Hm : mnode := MN EL_H false 0 0 None.
Definition bump1 (a : mnode) : mnode := MN (m_el a) (m_aro a) (m_hc a + 1) (m_ch a) (m_hp a).
(** one step of [h_to_implicit] *)
Definition mstep (g' : molg) (h : N) : molg :=
  match filter (fun x => negb (is_H_m g' x)) (nbrs g' h) with
  | [] => g'
  | heavy => remove_node (fold_left (fun g'' x => upd_node g'' x (fun a => MN (m_el a) (m_aro a) (m_hc a + 1) (m_ch a) (m_hp a))) heavy g') h
  end.
Lemma h_to_implicit_fold g : h_to_implicit g = fold_left mstep (h_nodes_m g) g.
Proof. reflexivity. Qed.

(** a pendant: (heavy atom, new hydrogen atom); [flip] = the bond is stored as (hydrogen, heavy) *)
Definition pedge (flip : bool) (p : N * N) : N * N * Z := if flip then (snd p, fst p, 2) else (fst p, snd p, 2).
Definition with_pendants (flip : bool) (g : molg) (ps : list (N * N)) : molg :=
  LG (gnodes g ++ map (fun p => (snd p, Hm)) ps) (gedges g ++ map (pedge flip) ps).

Lemma is_H_upd (g : molg) x n : is_H_m (upd_node g x bump1) n = is_H_m g n.
Proof. unfold is_H_m. rewrite label_upd. destruct (N.eqb n x); [|reflexivity]. destruct (label g n); reflexivity. Qed.

(** edges none of whose end points is [h], node lists without the key [h]: what a step at [h] leaves alone *)
Definition away (h : N) (e : N * N * Z) : Prop := let '(a, b, _) := e in a <> h /\ b <> h.
Lemma away_nbrs (es : list (N * N * Z)) h : (forall e, In e es -> away h e) ->
  flat_map (fun e : N * N * Z => let '(a, b, _) := e in if N.eqb a h then [b] else if N.eqb b h then [a] else []) es = [].
Proof.
  intros H. apply flat_map_nil_all. intros [[a b] o] I. destruct (H _ I) as [Ha Hb].
  destruct (N.eqb_spec a h); [contradiction|]. destruct (N.eqb_spec b h); [contradiction|]. reflexivity.
Qed.
Lemma away_keep (es : list (N * N * Z)) h : (forall e, In e es -> away h e) ->
  filter (fun e : N * N * Z => let '(a, b, _) := e in negb (N.eqb a h) && negb (N.eqb b h)) es = es.
Proof.
  intros H. apply filter_all. intros [[a b] o] I. destruct (H _ I) as [Ha Hb].
  destruct (N.eqb_spec a h); [contradiction|]. destruct (N.eqb_spec b h); [contradiction|]. reflexivity.
Qed.
Lemma pedge_away flip p h : fst p <> h -> snd p <> h -> away h (pedge flip p).
Proof. destruct p as [x k]. unfold pedge. destruct flip; simpl; tauto. Qed.
Lemma upd_absent {V} (l : list (N * V)) x (f : V -> V) : ~ In x (map fst l) ->
  map (fun p => if N.eqb (fst p) x then (fst p, f (snd p)) else p) l = l.
Proof.
  intros H. apply map_id_in. intros [k a] I. cbn [fst]. destruct (N.eqb_spec k x) as [->|]; [|reflexivity].
  exfalso. apply H. change x with (fst (x, a)). apply in_map. exact I.
Qed.
Lemma keep_absent {V} (l : list (N * V)) h : ~ In h (map fst l) -> filter (fun p => negb (N.eqb (fst p) h)) l = l.
Proof.
  intros H. apply filter_all. intros [k a] I. cbn [fst]. apply negb_true_iff, N.eqb_neq. intros ->.
  apply H. change h with (fst (h, a)). apply in_map. exact I.
Qed.

(** folding the pendants one after the other: the step at the first pendant [h] of [x] sees [x] as the only neighbour,
    bumps it and removes [h] with its bond; what is left is the same picture with one pendant less *)
Lemma pend_fold (flip : bool) (ps : list (N * N)) : forall g : molg,
  (forall p, In p ps -> is_H_m g (fst p) = false) ->
  NoDup (map snd ps) ->
  (forall p, In p ps -> ~ In (snd p) (node_ids g)) ->
  (forall u v o p, In (u, v, o) (gedges g) -> In p ps -> u <> snd p /\ v <> snd p) ->
  (forall p q, In p ps -> In q ps -> fst p <> snd q) ->
  fold_left mstep (map snd ps) (with_pendants flip g ps) = fold_left (fun g' p => upd_node g' (fst p) bump1) ps g.
Proof.
  induction ps as [|[x h] r IH]; intros g HH Hnd Hfresh Hedges Hxh.
  - simpl. unfold with_pendants; simpl. rewrite !app_nil_r. destruct g; reflexivity.
  - cbn [map fold_left snd fst].
    assert (Hxr : ~ In x (map snd r)).
    { intros I. apply in_map_iff in I. destruct I as (q & E & I). exact (Hxh (x, h) q (or_introl eq_refl) (or_intror I) (eq_sym E)). }
    assert (Hxh0 : x <> h) by exact (Hxh (x, h) (x, h) (or_introl eq_refl) (or_introl eq_refl)).
    assert (Hhr : ~ In h (map snd r)) by (inversion Hnd; assumption).
    assert (Hhg : ~ In h (node_ids (upd_node g x bump1))) by (rewrite ids_upd; exact (Hfresh (x, h) (or_introl eq_refl))).
    assert (Ag : forall e, In e (gedges g) -> away h e).
    { intros [[a b] o] I. exact (Hedges a b o (x, h) I (or_introl eq_refl)). }
    assert (Ar : forall e, In e (map (pedge flip) r) -> away h e).
    { intros e I. apply in_map_iff in I. destruct I as ([x' h'] & <- & I). apply pedge_away; cbn [fst snd]; intros E.
      - exact (Hxh (x', h') (x, h) (or_intror I) (or_introl eq_refl) E).
      - apply Hhr. rewrite <- E. change h' with (snd (x', h')). apply in_map. exact I. }
    set (G0 := with_pendants flip g ((x, h) :: r)).
    assert (En : nbrs G0 h = [x]).
    { unfold nbrs, G0, with_pendants; cbn [gedges map]. rewrite flat_map_app. cbn [flat_map].
      rewrite (away_nbrs _ h Ag), (away_nbrs _ h Ar), app_nil_r.
      unfold pedge; destruct flip; cbn [fst snd app]; rewrite N.eqb_refl; [reflexivity|].
      destruct (N.eqb_spec x h); [contradiction|reflexivity]. }
    assert (Hx : is_H_m G0 x = false).
    { unfold is_H_m. replace (label G0 x) with (label g x); [exact (HH (x, h) (or_introl eq_refl))|].
      unfold label, G0, with_pendants; cbn [gnodes]. destruct (assoc x (gnodes g)) as [a|] eqn:E.
      - symmetry. exact (assoc_app_some _ _ _ _ E).
      - rewrite (assoc_app_none _ _ _ E). symmetry. apply assoc_not_key. cbn [map fst snd]. rewrite map_map. cbn [fst].
        intros [E'|I]; [exact (Hxh0 (eq_sym E'))|exact (Hxr I)]. }
    unfold mstep at 2. rewrite En. cbn [filter]. rewrite Hx. cbn [negb fold_left].
    change (fun a : mnode => MN (m_el a) (m_aro a) (m_hc a + 1) (m_ch a) (m_hp a)) with bump1.
    replace (remove_node (upd_node G0 x bump1) h) with (with_pendants flip (upd_node g x bump1) r).
    + apply IH.
      * intros p I. rewrite is_H_upd. apply HH. right. exact I.
      * inversion Hnd; assumption.
      * intros p I. rewrite ids_upd. apply Hfresh. right. exact I.
      * intros u v o p I Ip. apply (Hedges u v o p); [exact I|right; exact Ip].
      * intros p q Ip Iq. apply Hxh; right; assumption.
    + unfold node_ids, upd_node in Hhg; cbn [gnodes] in Hhg.
      unfold remove_node, upd_node, G0, with_pendants; cbn [gnodes gedges map]. f_equal.
      * rewrite map_app, filter_app. cbn [map filter fst snd].
        destruct (N.eqb_spec h x) as [E|_]; [exfalso; exact (Hxh0 (eq_sym E))|]. cbn [fst]. rewrite N.eqb_refl. cbn [negb].
        rewrite (upd_absent (map (fun p : N * N => (snd p, Hm)) r)) by (rewrite map_map; exact Hxr).
        rewrite (keep_absent _ h Hhg), keep_absent by (rewrite map_map; exact Hhr). reflexivity.
      * rewrite filter_app. cbn [filter]. rewrite (away_keep _ h Ag), (away_keep _ h Ar).
        unfold pedge; destruct flip; cbn [fst snd]; rewrite N.eqb_refl; [|rewrite andb_false_r]; reflexivity.
Qed.

(** closed form of the bumping fold *)
Definition bumpm (k : Z) (a : mnode) : mnode := MN (m_el a) (m_aro a) (m_hc a + k) (m_ch a) (m_hp a).
Lemma bump_fold_m (ps : list (N * N)) : forall g : molg,
  gnodes (fold_left (fun g' p => upd_node g' (fst p) bump1) ps g)
  = map (fun q => (fst q, bumpm (occ (fst q) (map fst ps)) (snd q))) (gnodes g) /\
  gedges (fold_left (fun g' p => upd_node g' (fst p) bump1) ps g) = gedges g.
Proof.
  induction ps as [|[x h] r IH]; intros g; cbn [fold_left map fst].
  - split; [|reflexivity]. rewrite <- (map_id (gnodes g)) at 1. apply map_ext. intros [k a]. unfold bumpm, occ; simpl.
    rewrite Z.add_0_r. destruct a; reflexivity.
  - destruct (IH (upd_node g x bump1)) as [E1 E2]. rewrite E1, E2. split; [|reflexivity].
    unfold upd_node; cbn [gnodes]. rewrite map_map. apply map_ext. intros [k a]. cbn [fst snd]. rewrite occ_cons.
    destruct (N.eqb_spec k x) as [->|Hne]; cbn [fst snd].
    + destruct a as [e ar hc ch hp]. unfold bumpm, bump1; simpl. replace (hc + 1 + occ x (map fst r)) with (hc + (1 + occ x (map fst r))) by lia. reflexivity.
    + destruct a as [e ar hc ch hp]. unfold bumpm; simpl. reflexivity.
Qed.

Definition no_H_m (g : molg) : Prop := forall k a, In (k, a) (gnodes g) -> N.eqb (m_el a) EL_H = false.
Lemma no_H_is_H (g : molg) : no_H_m g -> forall x, is_H_m g x = false.
Proof. intros H x. unfold is_H_m. destruct (label g x) as [a|] eqn:E; [|reflexivity]. exact (H x a (assoc_in x (gnodes g) E)). Qed.
Lemma no_H_nodes (g : molg) : no_H_m g -> h_nodes_m g = [].
Proof. intros H. unfold h_nodes_m. rewrite filter_nil; [reflexivity|]. intros [k a] I. exact (H k a I). Qed.

(** folding all pendants of a graph without other hydrogen atoms: every pendant goes into its heavy atom *)
Theorem fold_pendants (flip : bool) (g : molg) (ps : list (N * N)) :
  no_H_m g -> NoDup (map snd ps) ->
  (forall p, In p ps -> ~ In (snd p) (node_ids g)) ->
  (forall u v o p, In (u, v, o) (gedges g) -> In p ps -> u <> snd p /\ v <> snd p) ->
  (forall p q, In p ps -> In q ps -> fst p <> snd q) ->
  h_to_implicit (with_pendants flip g ps)
  = LG (map (fun q => (fst q, bumpm (occ (fst q) (map fst ps)) (snd q))) (gnodes g)) (gedges g).
Proof.
  intros NH Hnd Hfresh Hedges Hxh. rewrite h_to_implicit_fold.
  assert (Eh : h_nodes_m (with_pendants flip g ps) = map snd ps).
  { unfold h_nodes_m, with_pendants; cbn [gnodes]. rewrite filter_app, map_app.
    rewrite (filter_nil _ (gnodes g)) by (intros [k a] I; exact (NH k a I)). cbn [map app].
    rewrite filter_all by (intros [k a] I; apply in_map_iff in I; destruct I as (q & E & _); inversion E; reflexivity).
    rewrite map_map. reflexivity. }
  rewrite Eh, (pend_fold flip ps g (fun p _ => no_H_is_H g NH (fst p)) Hnd Hfresh Hedges Hxh).
  destruct (bump_fold_m ps g) as [E1 E2].
  destruct (fold_left (fun g' p => upd_node g' (fst p) bump1) ps g) as [ns es]. simpl in E1, E2. subst. reflexivity.
Qed.

(** * the two sides of the ITS _explicit_h returns *)
Fixpoint pend (h : N) (xs : list N) : list (N * N) :=
  match xs with [] => [] | x :: r => (x, h) :: pend (N.succ h) r end.
Lemma pend_fst h xs : map fst (pend h xs) = xs.
Proof. revert h. induction xs as [|x r IH]; intros h; simpl; [reflexivity|]. rewrite IH. reflexivity. Qed.
Lemma pend_snd_ge xs : forall h p, In p (pend h xs) -> (h <= snd p)%N /\ In (fst p) xs.
Proof.
  induction xs as [|x r IH]; intros h p I; [destruct I|]. simpl in I. destruct I as [<-|I]; [simpl; split; [lia|left; reflexivity]|].
  destruct (IH _ _ I) as [H1 H2]. split; [lia|right; exact H2].
Qed.
Lemma pend_nodup xs : forall h, NoDup (map snd (pend h xs)).
Proof.
  induction xs as [|x r IH]; intros h; simpl; [constructor|]. constructor; [|apply IH].
  intros I. apply in_map_iff in I. destruct I as (p & E & I). destruct (pend_snd_ge r _ _ I) as [H1 _]. lia.
Qed.

Lemma side_new_nodes (sn : inode -> nattr) (f : N * N -> N) ms : (sn H_inode = NA EL_H false 0 0 []) -> forall h,
  map (fun p : N * inode => (fst p, dec_node (sn (snd p)))) (new_nodes h ms) = map (fun p : N * N => (snd p, Hm)) (pend h (map f ms)).
Proof.
  intros Hsn. induction ms as [|sd r IH]; intros h; simpl; [reflexivity|]. rewrite IH, Hsn. reflexivity.
Qed.
Lemma left_new_edges ms : forall h,
  flat_map (fun e : N * N * iedge => let '(u, v, x) := e in if 0 <? eG x then [(u, v, eG x)] else []) (new_edges h ms)
  = map (pedge false) (pend h (map fst ms)).
Proof. induction ms as [|sd r IH]; intros h; simpl; [reflexivity|]. rewrite IH. reflexivity. Qed.
Lemma right_new_edges ms : forall h,
  flat_map (fun e : N * N * iedge => let '(u, v, x) := e in if 0 <? eH x then [(u, v, eH x)] else []) (new_edges h ms)
  = map (pedge true) (pend h (map snd ms)).
Proof. induction ms as [|sd r IH]; intros h; simpl; [reflexivity|]. rewrite IH. reflexivity. Qed.

(** closed form of the decrementing fold *)
Definition decs (kG kH : Z) (a : inode) : inode :=
  IN (set_hc (iG a) (a_hc (iG a) - kG)) (set_hc (iH a) (a_hc (iH a) - kH)) (i_hc a) (i_hp a).
Lemma dec_fold_gnodes ms : forall J : its,
  gnodes (fold_left dec_step ms J)
  = map (fun p => (fst p, decs (occ (fst p) (map fst ms)) (occ (fst p) (map snd ms)) (snd p))) (gnodes J).
Proof.
  induction ms as [|sd r IH]; intros J; cbn [fold_left map].
  - rewrite <- (map_id (gnodes J)) at 1. apply map_ext. intros [k a]. unfold decs, occ; simpl. rewrite !Z.sub_0_r.
    destruct a as [[] [] ? ?]; reflexivity.
  - rewrite IH. unfold dec_step, upd_node; cbn [gnodes]. rewrite !map_map. apply map_ext. intros [k a]. cbn [fst snd].
    rewrite !occ_cons.
    destruct (N.eqb_spec k (fst sd)) as [E1|E1]; cbn [fst snd]; destruct (N.eqb_spec k (snd sd)) as [E2|E2]; cbn [fst snd];
      destruct a as [[e1 r1 h1 c1 n1] [e2 r2 h2 c2 n2] hc hp]; unfold decs, dec_G, dec_H, set_hc; cbn -[Z.add Z.sub]; f_equal; f_equal; f_equal; lia.
Qed.

Lemma occ_notin x l : ~ In x l -> occ x l = 0.
Proof.
  intros H. unfold occ. rewrite filter_nil; [reflexivity|]. intros y I. apply N.eqb_neq. intros ->. contradiction.
Qed.

Section Explicit.
  Variables (T T' : its) (ms : list (N * N)).
  Hypothesis Hnd : NoDup (node_ids T).
  (** what _explicit_h does, whatever ORDER it visits the atoms of a hydrogen-transfer group in (the code iterates over a Python
      set): [ms] are migrations between atoms of T, one new hydrogen atom with its two bonds is appended per migration, donor and
      recipient counts are lowered.  Both [explicit_h] (sorted order) and C03's [explicit_h_ord ord] have this shape. *)
  Hypothesis Hat : forall sd, In sd ms -> has_node T (fst sd) = true /\ has_node T (snd sd) = true.
  Hypothesis Hshape : exists T1 h1, fold_left addH_step ms (T, N.succ (max_id T)) = (T1, h1) /\ T' = fold_left dec_step ms T1.
  Let h0 := N.succ (max_id T).

  Lemma mig_atoms sd : In sd ms -> In (fst sd) (node_ids T) /\ In (snd sd) (node_ids T).
  Proof.
    intros I. destruct (Hat sd I) as [H1 H2]. apply has_node_label in H1, H2. destruct H1 as [a Ha], H2 as [b Hb].
    split; [exact (label_some_in T _ a Ha)|exact (label_some_in T _ b Hb)].
  Qed.
  Lemma fresh_not_mig k : (h0 <= k)%N -> ~ In k (map fst ms) /\ ~ In k (map snd ms).
  Proof.
    intros Hk. split; intros I; apply in_map_iff in I; destruct I as (sd & E & I); destruct (mig_atoms sd I) as [I1 I2].
    - pose proof (max_id_ge T _ I1). unfold h0 in Hk. lia.
    - pose proof (max_id_ge T _ I2). unfold h0 in Hk. lia.
  Qed.

  Lemma explicit_edges : gedges T' = gedges T ++ new_edges h0 ms.
  Proof.
    destruct Hshape as (T1 & h1 & E1 & ET). rewrite ET, dec_fold_edges.
    exact (proj2 (addH_fold_lists ms _ _ _ _ E1)).
  Qed.
  Lemma explicit_nodes :
    gnodes T' = map (fun p => (fst p, decs (occ (fst p) (map fst ms)) (occ (fst p) (map snd ms)) (snd p))) (gnodes T) ++ new_nodes h0 ms.
  Proof.
    destruct Hshape as (T1 & h1 & E1 & ET). rewrite ET, dec_fold_gnodes.
    rewrite (proj1 (addH_fold_lists ms _ _ _ _ E1)), map_app. f_equal.
    apply map_id_in. intros [k a] I. destruct (new_nodes_ge _ _ _ _ I) as [Hk ->]. cbn [fst snd].
    destruct (fresh_not_mig k Hk) as [N1 N2]. rewrite (occ_notin _ _ N1), (occ_notin _ _ N2). reflexivity.
  Qed.

  (** one side: [sn] / [se] select it, [proj] the end of a migration that keeps the new hydrogen on this side *)
  Section Side.
    Variables (sn : inode -> nattr) (se : iedge -> Z) (flip : bool) (proj : N * N -> N).
    Hypothesis SnH : sn H_inode = NA EL_H false 0 0 [].
    Hypothesis SnDec : forall a n, dec_node (sn (decs (occ n (map fst ms)) (occ n (map snd ms)) a))
                                   = bumpm (- occ n (map proj ms)) (dec_node (sn a)).
    Hypothesis NewE : forall h, flat_map (fun e : N * N * iedge => let '(u, v, x) := e in if 0 <? se x then [(u, v, se x)] else []) (new_edges h ms)
                                = map (pedge flip) (pend h (map proj ms)).
    Hypothesis ProjIn : forall sd, In sd ms -> In (proj sd) (node_ids T).
    Hypothesis NoH : forall k a, In (k, a) (gnodes T) -> N.eqb (a_el (sn a)) EL_H = false.
    Hypothesis Closed : forall u v o, In (u, v, o) (gedges (dec_side sn se T)) -> In u (node_ids T) /\ In v (node_ids T).

    Let gS : molg := LG (map (fun p => (fst p, bumpm (- occ (fst p) (map proj ms)) (dec_node (sn (snd p))))) (gnodes T)) (gedges (dec_side sn se T)).

    Lemma side_shape : dec_side sn se T' = with_pendants flip gS (pend h0 (map proj ms)).
    Proof.
      unfold dec_side, with_pendants, gS; cbn [gnodes gedges]. rewrite explicit_nodes, explicit_edges, map_app, flat_map_app. f_equal.
      - f_equal.
        + rewrite map_map. apply map_ext. intros [k a]. cbn [fst snd]. rewrite SnDec. reflexivity.
        + exact (side_new_nodes sn proj ms SnH h0).
      - f_equal. apply NewE.
    Qed.

    Theorem explicit_side : h_to_implicit (dec_side sn se T') = dec_side sn se T.
    Proof.
      rewrite side_shape, fold_pendants.
      - unfold gS, dec_side; cbn [gnodes gedges]. f_equal. rewrite map_map. apply map_ext. intros [k a]. cbn [fst snd]. rewrite pend_fst.
        destruct (dec_node (sn a)) as [e ar hc ch hp]. unfold bumpm; cbn -[Z.add Z.opp]. f_equal. f_equal. lia.
      - intros k a I. unfold gS in I; cbn [gnodes] in I. apply in_map_iff in I. destruct I as ([k' a'] & E & I). inversion E; subst.
        unfold bumpm, dec_node; simpl. exact (NoH k a' I).
      - apply pend_nodup.
      - intros p I J. destruct (pend_snd_ge _ _ _ I) as [Hge _].
        assert (In (snd p) (node_ids T)).
        { unfold node_ids, gS in J; cbn [gnodes] in J. rewrite map_map in J. exact J. }
        pose proof (max_id_ge T _ H). unfold h0 in Hge. lia.
      - intros u v o p I Ip. destruct (pend_snd_ge _ _ _ Ip) as [Hge _]. destruct (Closed u v o I) as [Iu Iv].
        pose proof (max_id_ge T _ Iu). pose proof (max_id_ge T _ Iv). unfold h0 in Hge. split; lia.
      - intros p q Ip Iq. destruct (pend_snd_ge _ _ _ Ip) as [_ Ix]. destruct (pend_snd_ge _ _ _ Iq) as [Hge _].
        apply in_map_iff in Ix. destruct Ix as (sd & E & Isd). pose proof (max_id_ge T _ (ProjIn sd Isd)). rewrite E in H. unfold h0 in Hge. lia.
    Qed.
  End Side.

  Theorem explicit_left :
    (forall k a, In (k, a) (gnodes T) -> N.eqb (a_el (iG a)) EL_H = false) ->
    (forall u v o, In (u, v, o) (gedges (dec_side iG eG T)) -> In u (node_ids T) /\ In v (node_ids T)) ->
    h_to_implicit (dec_side iG eG T') = dec_side iG eG T.
  Proof.
    intros NoH Cl. apply (explicit_side iG eG false fst); try assumption.
    - reflexivity.
    - intros a n. destruct a as [[e1 r1 h1 c1 n1] [e2 r2 h2 c2 n2] hc hp]. unfold decs, dec_node, bumpm, set_hc; cbn -[Z.add Z.sub Z.opp]. f_equal; lia.
    - exact (left_new_edges ms).
    - intros sd I. exact (proj1 (mig_atoms sd I)).
  Qed.
  Theorem explicit_right :
    (forall k a, In (k, a) (gnodes T) -> N.eqb (a_el (iH a)) EL_H = false) ->
    (forall u v o, In (u, v, o) (gedges (dec_side iH eH T)) -> In u (node_ids T) /\ In v (node_ids T)) ->
    h_to_implicit (dec_side iH eH T') = dec_side iH eH T.
  Proof.
    intros NoH Cl. apply (explicit_side iH eH true snd); try assumption.
    - reflexivity.
    - intros a n. destruct a as [[e1 r1 h1 c1 n1] [e2 r2 h2 c2 n2] hc hp]. unfold decs, dec_node, bumpm, set_hc; cbn -[Z.add Z.sub Z.opp]. f_equal; lia.
    - exact (right_new_edges ms).
    - intros sd I. exact (proj2 (mig_atoms sd I)).
  Qed.
End Explicit.

(** * [h_to_implicit] on a substrate seen as molecule graph = [h_to_implicit_host], the same function on the other node type *)
Lemma molg_of_upd (g : hostg) x : molg_of (upd_node g x (fun a => set_hc a (a_hc a + 1))) = upd_node (molg_of g) x bump1.
Proof.
  unfold molg_of, upd_node; cbn [gnodes gedges]. f_equal. rewrite !map_map. apply map_ext. intros [k a]. cbn [fst snd].
  destruct (N.eqb k x); reflexivity.
Qed.
Lemma molg_of_upd_fold xs : forall g : hostg,
  molg_of (fold_left (fun g'' x => upd_node g'' x (fun a => set_hc a (a_hc a + 1))) xs g)
  = fold_left (fun g'' x => upd_node g'' x bump1) xs (molg_of g).
Proof. induction xs as [|x r IH]; intros g; simpl; [reflexivity|]. rewrite IH, molg_of_upd. reflexivity. Qed.
Lemma molg_of_remove (g : hostg) h : molg_of (remove_node g h) = remove_node (molg_of g) h.
Proof.
  unfold molg_of, remove_node; cbn [gnodes gedges]. f_equal.
  induction (gnodes g) as [|[k a] r IH]; simpl; [reflexivity|]. destruct (N.eqb k h); simpl; rewrite IH; reflexivity.
Qed.
Lemma molg_of_isH (g : hostg) x : is_H_m (molg_of g) x = is_H_h g x.
Proof. unfold is_H_m, is_H_h. rewrite molg_of_label. destruct (label g x); reflexivity. Qed.
Lemma molg_of_step (g : hostg) h : mstep (molg_of g) h = molg_of (hstep g h).
Proof.
  unfold mstep, hstep. change (nbrs (molg_of g) h) with (nbrs g h).
  rewrite (filter_ext (fun x => negb (is_H_m (molg_of g) x)) (fun x => negb (is_H_h g x))) by (intros x; rewrite molg_of_isH; reflexivity).
  destruct (filter (fun x => negb (is_H_h g x)) (nbrs g h)) as [|x0 xs]; [reflexivity|].
  rewrite molg_of_remove, molg_of_upd_fold. reflexivity.
Qed.
Theorem fold_molg_of (g : hostg) : h_to_implicit (molg_of g) = molg_of (h_to_implicit_host g).
Proof.
  rewrite h_to_implicit_fold.
  assert (Eh : h_nodes_m (molg_of g) = h_nodes_h g).
  { unfold h_nodes_m, h_nodes_h, molg_of; cbn [gnodes]. induction (gnodes g) as [|[k a] r IH]; simpl; [reflexivity|].
    destruct (N.eqb (a_el a) EL_H); simpl; rewrite IH; reflexivity. }
  rewrite Eh. unfold h_to_implicit_host. change (fold_left _ (h_nodes_h g) g) with (fold_left hstep (h_nodes_h g) g).
  clear Eh. generalize (h_nodes_h g). intros hs. revert g. induction hs as [|h r IH]; intros g; simpl; [reflexivity|].
  rewrite molg_of_step. apply IH.
Qed.

(** * graphs without hydrogen atoms are their own normal form *)
Lemma heavy_part_noH (g : molg) : no_H_m g -> heavy_part g = g.
Proof.
  intros NH. unfold heavy_part.
  rewrite (filter_all _ (gnodes g)) by (intros [k a] I; cbn [snd]; rewrite (NH k a I); reflexivity).
  rewrite (filter_all _ (gedges g)) by (intros [[u v] o] _; rewrite !(no_H_is_H g NH); reflexivity).
  destruct g; reflexivity.
Qed.
Lemma free_h_noH (g : molg) : no_H_m g -> free_h g = (0%nat, 0%nat).
Proof.
  intros NH. unfold free_h. rewrite (no_H_nodes g NH). rewrite filter_nil; [reflexivity|].
  intros [[u v] o] _. rewrite !(no_H_is_H g NH). reflexivity.
Qed.
Lemma folded_eqb_noH (X Y X0 Y0 : molg) : h_to_implicit X = X0 -> h_to_implicit Y = Y0 -> no_H_m X0 -> no_H_m Y0 ->
  folded_eqb X Y = mol_eqb X0 Y0.
Proof.
  intros EX EY NX NY. unfold folded_eqb. rewrite EX, EY, (heavy_part_noH X0 NX), (heavy_part_noH Y0 NY), (free_h_noH X0 NX), (free_h_noH Y0 NY).
  simpl. rewrite !andb_true_r. reflexivity.
Qed.

Lemma no_H_dec_side sn se (T : its) : (forall k a, In (k, a) (gnodes T) -> N.eqb (a_el (sn a)) EL_H = false) -> no_H_m (dec_side sn se T).
Proof. intros H k a I. rewrite dec_gnodes in I. apply in_map_iff in I. destruct I as ([k' a'] & E & I). inversion E; subst. exact (H k a' I). Qed.
Lemma no_H_molg_of (g : hostg) : (forall k a, In (k, a) (gnodes g) -> N.eqb (a_el a) EL_H = false) -> no_H_m (molg_of g).
Proof. intros H k a I. unfold molg_of in I; cbn [gnodes] in I. apply in_map_iff in I. destruct I as ([k' a'] & E & I). inversion E; subst. exact (H k a' I). Qed.

(** * assembly *)
Lemma folded_noH (A : hostg) : wf_hostb A = true -> foldable A ->
  forall k a, In (k, a) (gnodes (h_to_implicit_host A)) -> N.eqb (a_el a) EL_H = false.
Proof.
  intros HA FA k a I. destruct (fold_host_spec A (wf_host_nodup A HA) FA) as (RH & _ & F). set (R := rev (h_nodes_h A)) in *.
  pose proof (label_in _ k a (folded_nodup A _ R F HA) I) as L.
  destruct (folded_label_elim A _ R F k a L) as (NR & a0 & E0 & ->).
  destruct (N.eqb (a_el a0) EL_H) eqn:EH; [|unfold bumpk, set_hc; simpl; exact EH].
  exfalso. apply NR. apply RH. unfold is_H_h. rewrite E0. exact EH.
Qed.

(** what "one side of T decomposes to the hydrogen-free graph S" gives about T *)
Lemma side_facts (sn : inode -> nattr) (se : iedge -> Z) (T : its) (S : hostg) :
  NoDup (node_ids T) -> closed S -> (forall k a, In (k, a) (gnodes S) -> N.eqb (a_el a) EL_H = false) ->
  mol_eqb (dec_side sn se T) (molg_of S) = true ->
  (forall k a, In (k, a) (gnodes T) -> N.eqb (a_el (sn a)) EL_H = false) /\
  (forall u v o, In (u, v, o) (gedges (dec_side sn se T)) -> In u (node_ids T) /\ In v (node_ids T)).
Proof.
  intros Hnd CS NS E. destruct (mol_eqb_elim _ _ E) as [[E1 E2] [E3 _]]. split.
  - intros k a I. destruct (nodes_sub_elim _ _ E1 k (dec_node (sn a))) as (b & Eb & Es).
    { rewrite dec_gnodes. apply in_map_iff. exists (k, a). split; [reflexivity|exact I]. }
    rewrite molg_of_label in Eb. destruct (label S k) as [x|] eqn:Ex; [|discriminate]. inversion Eb; subst b.
    unfold sel3 in Es; simpl in Es. injection Es as E0 _ _. rewrite E0. exact (NS k x (assoc_in k (gnodes S) Ex)).
  - assert (Hin : forall u, In u (node_ids S) -> In u (node_ids T)).
    { intros u Iu. destruct (in_ids_label S u Iu) as [x Ex]. destruct (nodes_sub_elim _ _ E2 u (dec_node x)) as (b & Eb & _).
      { unfold molg_of; cbn [gnodes]. apply in_map_iff. exists (u, x). split; [reflexivity|exact (assoc_in u (gnodes S) Ex)]. }
      rewrite dec_label in Eb. destruct (label T u) as [a|] eqn:Ea; [|discriminate]. exact (label_some_in T u a Ea). }
    intros u v o I. pose proof (edges_sub_elim _ _ E3 u v o I) as Ea.
    unfold adj, molg_of in Ea; cbn [gedges] in Ea. apply find_edge_in in Ea. destruct Ea as (p & q & Ie & Hp).
    destruct (CS p q o Ie) as [Ip Iq]. destruct (peq_elim _ _ _ _ Hp) as [[-> ->]|[-> ->]]; split; apply Hin; assumption.
Qed.

Theorem explicit_end_shape (T T' : its) (ms : list (N * N)) (A B : hostg) :
  wf_hostb A = true -> wf_hostb B = true -> foldable A -> foldable B -> closed A -> closed B ->
  NoDup (node_ids T) ->
  regen_exact T (h_to_implicit_host A) (h_to_implicit_host B) = true ->
  (forall sd, In sd ms -> has_node T (fst sd) = true /\ has_node T (snd sd) = true) ->
  (exists T1 h1, fold_left addH_step ms (T, N.succ (max_id T)) = (T1, h1) /\ T' = fold_left dec_step ms T1) ->
  regen_folded T' A B = true.
Proof.
  intros HA HB FA FB CA CB Hnd RE Hat Hsh.
  destruct (fold_host_spec A (wf_host_nodup A HA) FA) as (_ & _ & FAA).
  destruct (fold_host_spec B (wf_host_nodup B HB) FB) as (_ & _ & FBB).
  pose proof (folded_closed A _ _ FAA CA) as CA'. pose proof (folded_closed B _ _ FBB CB) as CB'.
  pose proof (folded_noH A HA FA) as NA'. pose proof (folded_noH B HB FB) as NB'.
  unfold regen_exact, its_decompose in RE. apply andb_prop in RE. destruct RE as [RL RR].
  destruct (side_facts iG eG T _ Hnd CA' NA' RL) as [NL CL].
  destruct (side_facts iH eH T _ Hnd CB' NB' RR) as [NR CR].
  unfold regen_folded, its_decompose. apply andb_true_intro; split.
  - rewrite (folded_eqb_noH _ _ _ _ (explicit_left T T' ms Hat Hsh NL CL) (fold_molg_of A)
               (no_H_dec_side iG eG T NL) (no_H_molg_of _ NA')). exact RL.
  - rewrite (folded_eqb_noH _ _ _ _ (explicit_right T T' ms Hat Hsh NR CR) (fold_molg_of B)
               (no_H_dec_side iH eH T NR) (no_H_molg_of _ NB')). exact RR.
Qed.

(** the sorted visiting order of the model ... *)
Theorem explicit_end (T T' : its) (ms : list (N * N)) (A B : hostg) :
  wf_hostb A = true -> wf_hostb B = true -> foldable A -> foldable B -> closed A -> closed B ->
  NoDup (node_ids T) ->
  regen_exact T (h_to_implicit_host A) (h_to_implicit_host B) = true ->
  explicit_h T = Some (T', ms) ->
  regen_folded T' A B = true.
Proof.
  intros HA HB FA FB CA CB Hnd RE HE. destruct (explicit_h_unfold T T' ms HE) as (Hm & Hsh).
  exact (explicit_end_shape T T' ms A B HA HB FA FB CA CB Hnd RE (migrations_are_atoms T ms Hm) Hsh).
Qed.

(** ... and EVERY visiting order (C03's [explicit_h_ord ord]: [ord] lists the atoms of a group in any duplicate-free order, as the
    iteration over a Python set does) *)
Theorem explicit_end_ord (ord : list N -> list N) (T T' : its) (ms : list (N * N)) (A B : hostg) :
  (forall l x, In x (ord l) <-> In x l) -> (forall l, NoDup l -> NoDup (ord l)) ->
  wf_hostb A = true -> wf_hostb B = true -> foldable A -> foldable B -> closed A -> closed B ->
  NoDup (node_ids T) ->
  regen_exact T (h_to_implicit_host A) (h_to_implicit_host B) = true ->
  explicit_h_ord ord T = Some (T', ms) ->
  regen_folded T' A B = true.
Proof.
  intros O1 O2 HA HB FA FB CA CB Hnd RE HE. destruct (explicit_h_ord_unfold ord T T' ms HE) as (Hm & Hsh).
  exact (explicit_end_shape T T' ms A B HA HB FA FB CA CB Hnd RE (migrations_are_atoms_ord ord O1 T ms Hm) Hsh).
Qed.
