(** C10 — proofs: molecule -> graph -> molecule on the REACTION path (rsmi_to_graph: drop_non_aam = use_index_as_atom_map =
    True, node id = atom-map number) for a fully mapped molecule: the RWMol handed back to RDKit has the atoms that were read, in
    order, and between every pair of atom indices the bond that was read — as C10_mol_graph_roundtrip states for the default flags.
    An instance of [mol_graph_roundtrip_numbered] (proof/C10_MolGraph.v). *)
From Coq Require Import String List NArith ZArith Bool Lia.
From SK Require Import lib.LGraph lib.StrJoin model.C10_Model proof.C10_Views proof.C10_Build proof.C10_Copy proof.C10_MolGraph
  proof.C10_Light proof.C10_MolOk proof.C10_Smart proof.C10_G2MSpec.
Import ListNotations.
Local Open Scope Z_scope.

Definition mapped (a : ratom) : bool := negb (r_map a =? 0).

(** atom index <-> node id of a fully mapped atom list *)
Lemma i2T_index l : forall idx i0 k, forallb mapped l = true -> NoDup (map fst (numT l)) -> (k < N.of_nat (List.length l))%N ->
  exists u, assoc (idx + k)%N (i2T idx l) = Some u /\ index_of u (map fst (numT l)) i0 = Some (i0 + k)%N.
Proof.
  induction l as [|a r IH]; intros idx i0 k Hm Hnd Hk; [simpl in Hk; lia|].
  simpl in Hm. apply andb_true_iff in Hm. destruct Hm as [Ha Hr]. unfold mapped in Ha. apply negb_true_iff in Ha.
  cbn [i2T numT] in *. rewrite Ha in *. cbn [app map fst] in *. inversion Hnd as [|? ? Hnot Hnd']; subst.
  destruct (N.eq_dec k 0) as [->|Hk0].
  - exists (Z.to_N (r_map a)). rewrite !N.add_0_r. simpl. rewrite !N.eqb_refl. auto.
  - destruct (IH (N.succ idx) (N.succ i0) (N.pred k) Hr Hnd') as (u & A & I); [simpl List.length in Hk; lia|].
    exists u. replace (N.succ idx + N.pred k)%N with (idx + k)%N in A by lia. replace (N.succ i0 + N.pred k)%N with (i0 + k)%N in I by lia.
    split.
    + simpl. destruct (N.eqb_spec (idx + k) idx); [lia|]. exact A.
    + simpl. destruct (N.eqb_spec (Z.to_N (r_map a)) u) as [E|_]; [|exact I].
      exfalso. apply Hnot. rewrite E. apply (index_of_in _ _ _ _ I).
Qed.
Lemma numT_full l : forallb mapped l = true -> numT l = map (fun a => (Z.to_N (r_map a), atom_att a)) l.
Proof.
  induction l as [|a r IH]; [reflexivity|]. simpl. intros H. apply andb_true_iff in H. destruct H as [Ha Hr].
  unfold mapped in Ha. apply negb_true_iff in Ha. rewrite Ha. simpl. f_equal. apply IH, Hr.
Qed.

Section Mapped.
Variable m : rmol.
Hypothesis Hok : rdmol_ok m = true.
Hypothesis Hfull : forallb mapped (fst m) = true.
Let atoms := fst m.
Let bonds := snd m.
Let n := N.of_nat (List.length atoms).
Let ids := map fst (numT atoms).
Let st := m2g_nodes true true 0%N atoms (g_empty, []).
Let g0 := fst st.
Let G := mol_to_graph m true true.

Let Hwf : wf_mol m = true := proj1 (rdmol_ok_parts m Hok).
Let Hnd : NoDup ids := proj2 (proj2 (proj2 (rdmol_ok_parts m Hok))).

Definition Tm (i : N) : N := dflt (assoc i (i2T 0 atoms)) 0%N.
Lemma T_index k : (k < n)%N -> assoc k (i2T 0 atoms) = Some (Tm k) /\ index_of (Tm k) ids 0 = Some k.
Proof.
  intros Hk. destruct (i2T_index atoms 0%N 0%N k Hfull Hnd Hk) as (u & A & I). rewrite N.add_0_l in A, I. unfold Tm. rewrite A. auto.
Qed.
Lemma st_facts_t : gnodes g0 = numT atoms /\ gedges g0 = [] /\ gwf g0 /\ forall k, (k < n)%N -> assoc k (snd st) = Some (Tm k).
Proof.
  destruct (st_tt m Hnd) as (E1 & E2 & W & E3). split; [exact E1|split; [exact E2|split; [exact W|]]].
  intros k Hk. rewrite E3. apply (T_index k Hk).
Qed.
Let HT : forall k, (k < n)%N -> index_of (Tm k) ids 0 = Some k := fun k Hk => proj2 (T_index k Hk).
Lemma length_numT : List.length (numT atoms) = List.length atoms.
Proof. rewrite (numT_full atoms Hfull). apply map_length. Qed.

Lemma G_gnodes_t : gnodes G = numT atoms.
Proof. exact (mol_gnodes m true true Hwf (numT atoms) Tm st_facts_t HT). Qed.
Lemma G_adj_t x y : adj G x y = mdT m (numT atoms) x y.
Proof. exact (mol_adj m true true Hwf (numT atoms) Tm st_facts_t HT length_numT x y). Qed.

Theorem mol_graph_roundtrip_mapped :
  exists bonds', graph_to_mol G = Some (map atom_back atoms, bonds') /\
                 forall i j, bond_find i j bonds' = option_map bond_type (bond_find i j bonds).
Proof.
  apply (mol_graph_roundtrip_numbered m true true Hwf (numT atoms) Tm st_facts_t HT length_numT).
  rewrite (numT_full atoms Hfull), map_map. reflexivity.
Qed.
End Mapped.

(** non-vacuity: the mapped acetate-like record [CH3:5][O-:2] *)
Local Open Scope string_scope.
Definition ex_mapped : rmol := ([RAt (s2l "C") false 3 0 5; RAt (s2l "O") false 0 (-1) 2], [(0%N, 1%N, 2)]).
Example mol_graph_roundtrip_mapped_ex :
  rdmol_ok ex_mapped = true /\ forallb mapped (fst ex_mapped) = true /\
  node_ids (mol_to_graph ex_mapped true true) = [5%N; 2%N] /\
  graph_to_mol (mol_to_graph ex_mapped true true) = Some (map atom_back (fst ex_mapped), [(0%N, 1%N, 2)]).
Proof. vm_compute. repeat split. Qed.

(** ** the reaction path under the two RDKit contracts (as C10_smiles_roundtrip_under_rdkit_contract for the default flags) *)
Theorem rsmi_side_roundtrip_under_contract
  (Smi : Type) (read : Smi -> option rmol) (write : list watom * list (N * N * Z) -> option Smi) (canon : Smi -> Smi) :
  (forall s m, read s = Some m -> rdmol_ok m = true /\ forallb mapped (fst m) = true) ->
  (forall s m bonds', read s = Some m -> (forall i j, bond_find i j bonds' = bond_find i j (snd m)) ->
                      write (map atom_back (fst m), bonds') = Some (canon s)) ->
  forall s m, read s = Some m ->
    match graph_to_mol (mol_to_graph m true true) with Some w => write w | None => None end = Some (canon s).
Proof.
  intros C1 C2 s m R. destruct (C1 s m R) as [Hok Hfull]. destruct (mol_graph_roundtrip_mapped m Hok Hfull) as (bonds' & E & Hb).
  rewrite E. apply (C2 s m bonds' R). intros i j. rewrite Hb. destruct (bond_find i j (snd m)) as [o|] eqn:F; [|reflexivity].
  simpl. destruct (bond_find_in_list i j _ o F) as (b & e & Hin).
  destruct (rdmol_ok_parts m Hok) as (_ & _ & H3 & _). specialize (H3 b e o Hin). unfold okord in H3. rewrite !orb_true_iff, !Z.eqb_eq in H3. f_equal. destruct H3 as [[[-> | ->] | ->] | ->]; reflexivity.
Qed.
Example rsmi_side_contract_ex :
  let read := fun _ : unit => Some ex_mapped in
  let write := fun _ : list watom * list (N * N * Z) => Some tt in
  (forall s m, read s = Some m -> rdmol_ok m = true /\ forallb mapped (fst m) = true) /\
  match graph_to_mol (mol_to_graph ex_mapped true true) with Some w => write w | None => None end = Some tt.
Proof. cbv zeta. split; [intros s m [= <-]; split; reflexivity|vm_compute; reflexivity]. Qed.
