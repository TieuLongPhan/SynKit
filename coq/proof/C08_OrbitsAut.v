(** C08 — compute_orbits returns the orbits of the automorphism group: two nodes lie in one class of [nauty_orbits]
    exactly when an automorphism of the covered graph carries one to the other.  From C08_Orbits (the classes are generated
    by the pairs (best_i, q_i), q a reported permutation), C08_Auts (every such pair is the image of a node under an
    automorphism; every automorphism contributes its pairs) and the group structure of the automorphisms
    ([orbit_classes_aut], for any notion of "same graph" with [renum_laws]; C08_DOrbitsAut.v is the directed instance). *)
From Coq Require Import List NArith ZArith Bool Arith Lia Permutation Relations.
From SK Require Import lib.LGraph lib.StrJoin.
From SK Require Import model.C08_Model proof.C08_Spec proof.C08_Sort proof.C08_Faithful proof.C08_Cov proof.C08_SigFun
                       proof.C08_Render proof.C08_Nauty proof.C08_Sound proof.C08_Invariant proof.C08_Auts proof.C08_Orbits.
Import ListNotations.

Notation ix p := (apply_map (mapping_of p)).

(** an automorphism of [g] on the covered attributes *)
Definition aut (g : graph) (s : N -> N) : Prop := C08_Spec.inj_on s (node_ids g) /\ geq_cov (relabel s g) g.
Definition same_orbit (g : graph) (x y : N) : Prop := exists s, aut g s /\ s x = y.

Lemma aut_image g s x : aut g s -> In x (node_ids g) -> In (s x) (node_ids g).
Proof. intros [_ Hq]. exact (Q_image _ _ cov_laws g g s x Hq). Qed.
Lemma aut_onto g s y : aut g s -> In y (node_ids g) -> exists x, In x (node_ids g) /\ s x = y.
Proof. exact (aut_by_onto _ _ cov_laws g s y). Qed.
Lemma aut_id g : wf g -> aut g (fun x => x).
Proof. exact (aut_by_id _ _ cov_laws g). Qed.
Lemma aut_comp g s t : aut g s -> aut g t -> aut g (fun x => t (s x)).
Proof. exact (aut_by_comp _ _ cov_laws g s t). Qed.
Lemma aut_inv g s : wf g -> aut g s ->
  aut g (inv_on s (node_ids g)) /\ forall x, In x (node_ids g) -> inv_on s (node_ids g) (s x) = x.
Proof. exact (aut_by_inv _ _ cov_laws g s). Qed.

Lemma in_combine_map {A B} (f : A -> B) (l : list A) x : In x l -> In (x, f x) (combine l (map f l)).
Proof. induction l as [|a l IH]; simpl; [tauto|]. intros [->|I]; [left; reflexivity|right; auto]. Qed.

(* ---------------- the classes generated by a complete list of automorphisms are the orbits ---------------- *)
(* [best] is an ordering of the nodes; [auts] holds orderings that give the same form as [best], among them the image of
   [best] under every automorphism: then the classes of [orbit_classes best auts] are the orbits of the automorphism group *)
Section OrbitsOfAuts.
Variable W : graph -> Prop.
Variable Q : graph -> graph -> Prop.
Hypothesis laws : renum_laws W Q.
Variable g : graph.
Hypothesis Hg : W g.
Hypothesis Hend : forall a b x, In (a, b, x) (gedges g) -> In a (node_ids g) /\ In b (node_ids g) /\ a <> b.
Hypothesis Ng : NoDup (node_ids g).
Variable best : list N.
Variable auts : list (list N).
Hypothesis Pbest : Permutation best (node_ids g).
Hypothesis auts_sound : forall q, In q auts -> Permutation q (node_ids g) /\ Q (relabel (ix best) g) (relabel (ix q) g).
Hypothesis auts_complete : forall pi, (forall x y : N, pi x = pi y -> x = y) -> Q (relabel pi g) g -> In (map pi best) auts.

Definition same_orbit_by (x y : N) : Prop := exists s, aut_by Q g s /\ s x = y.

Lemma same_orbit_by_refl x : same_orbit_by x x.
Proof. exists (fun z => z). split; [apply (aut_by_id W Q laws); exact Hg|reflexivity]. Qed.
Lemma same_orbit_by_sym x y : In x (node_ids g) -> same_orbit_by x y -> same_orbit_by y x.
Proof.
  intros I (s & Hs & <-). destruct (aut_by_inv W Q laws g s Hg Hs) as [Ha Hv]. exists (inv_on s (node_ids g)). split; auto.
Qed.
Lemma same_orbit_by_trans x y z : same_orbit_by x y -> same_orbit_by y z -> same_orbit_by x z.
Proof. intros (s & Hs & <-) (t & Ht & <-). exists (fun u => t (s u)). split; [apply (aut_by_comp W Q laws); auto|reflexivity]. Qed.

(* every generating pair (best_i, q_i) is a node and its image under an automorphism *)
Lemma pair_same_orbit a b : pairs_rel best auts a b -> In a (node_ids g) /\ In b (node_ids g) /\ same_orbit_by a b.
Proof.
  intros (q & Iq & Iab). destruct (auts_sound q Iq) as (Pq & Hq). set (p := best) in *.
  assert (Np : NoDup p) by (exact (Permutation_NoDup (Permutation_sym Pbest) Ng)).
  assert (Nq : NoDup q) by (exact (Permutation_NoDup (Permutation_sym Pq) Ng)).
  assert (Hl : length p = length q) by (rewrite (Permutation_length Pbest), (Permutation_length Pq); reflexivity).
  assert (Ia : In a (node_ids g)) by (apply (Permutation_in _ Pbest); eapply in_combine_l; eauto).
  assert (Ib : In b (node_ids g)) by (apply (Permutation_in _ Pq); eapply in_combine_r; eauto).
  pose proof (ix_inj_on g p Ng Pbest) as Ip. pose proof (ix_inj_on g q Ng Pq) as Iqq.
  split; [exact Ia|]. split; [exact Ib|].
  exists (fun x => inv_on (ix q) (node_ids g) (ix p x)). split.
  - apply (common_form_by W Q laws g g); auto.
  - rewrite (ix_combine p q a b Np Nq Hl Iab). apply inv_on_spec; auto.
Qed.

Lemma eqv_same_orbit x y : eqv (pairs_rel best auts) x y ->
  (In x (node_ids g) /\ In y (node_ids g) /\ same_orbit_by x y) \/ x = y.
Proof.
  unfold eqv. induction 1 as [a b R|a|a b _ IH|a b c0 _ IH1 _ IH2].
  - left. apply pair_same_orbit. exact R.
  - right. reflexivity.
  - destruct IH as [(A & B & S) | ->]; [left|right; reflexivity]. split; [exact B|]. split; [exact A|]. apply same_orbit_by_sym; auto.
  - destruct IH1 as [(A & B & S) | ->]; [|exact IH2]. destruct IH2 as [(B' & C & S') | <-]; [|left; auto].
    left. split; [exact A|]. split; [exact C|]. eapply same_orbit_by_trans; eauto.
Qed.

Theorem orbit_classes_aut x y : In x (node_ids g) -> In y (node_ids g) ->
  ((exists c, In c (orbit_classes best auts) /\ In x c /\ In y c) <-> same_orbit_by x y).
Proof.
  intros Ix Iy. split.
  - intros (c & Ic & Ixc & Iyc).
    destruct (eqv_same_orbit x y (orbit_classes_spec best auts c x y Ic Ixc Iyc)) as [(_ & _ & S) | ->];
      [exact S|apply same_orbit_by_refl].
  - intros (s & Hs & <-).
    assert (Ib : forall z, In z (node_ids g) -> In z best) by (intros z; apply (Permutation_in _ (Permutation_sym Pbest))).
    apply orbit_classes_complete; [apply Ib; exact Ix|apply Ib; apply (Q_image W Q laws g g s x (proj2 Hs) Ix)|]. apply rst_step.
    destruct (global_renumbering Q g g s Hend (proj1 Hs) (proj2 Hs)) as (pi & pi_inj & Epi & Hq).
    exists (map pi best). split; [apply auts_complete; auto|].
    rewrite <- (Epi x Ix). apply in_combine_map. apply Ib. exact Ix.
Qed.
End OrbitsOfAuts.

Theorem nauty_orbits_aut g : wf g -> els_ok g -> forall x y, In x (node_ids g) -> In y (node_ids g) ->
  ((exists c, In c (nauty_orbits g) /\ In x c /\ In y c) <-> same_orbit g x y).
Proof.
  intros Hg Eg. unfold nauty_orbits, same_orbit, aut.
  apply (orbit_classes_aut _ _ cov_laws g Hg (proj1 (proj2 Hg)) (proj1 Hg) (nauty_perm g) (snd (nauty_acc g))).
  - apply nauty_perm_perm. apply Hg.
  - intros q Iq. destruct (nauty_auts_sound g Hg Eg q Iq) as (Pq & _ & Hq). auto.
  - intros pi pi_inj Hq. apply nauty_auts_complete; auto.
Qed.

(* non-vacuity: C4 with equal bonds: one orbit, and the rotation by one position is an automorphism carrying 1 to 2 *)
Definition oa_g : graph :=
  LG [(1%N, NA [67%N] false 0 0 None); (2%N, NA [67%N] false 0 0 None); (3%N, NA [67%N] false 0 0 None); (4%N, NA [67%N] false 0 0 None)]
     [(1%N, 2%N, EA 2 None); (2%N, 3%N, EA 2 None); (3%N, 4%N, EA 2 None); (4%N, 1%N, EA 2 None)].
Definition oa_rot (x : N) : N := if N.eqb x 4 then 1%N else (x + 1)%N.
Example oa_ex : length (nauty_orbits oa_g) = 1 /\ aut oa_g oa_rot /\ oa_rot 1 = 2%N.
Proof.
  split; [rewrite nauty_orbits_acc; vm_compute; reflexivity|]. split; [|reflexivity]. split.
  - intros x y Hx Hy. simpl in Hx, Hy.
    destruct Hx as [<-|[<-|[<-|[<-|[]]]]], Hy as [<-|[<-|[<-|[<-|[]]]]]; vm_compute; intros E; try reflexivity; discriminate.
  - split; vm_compute.
    + apply Permutation_sym. apply (Permutation_cons_app [_; _; _] []). apply Permutation_refl.
    + apply Permutation_sym. apply (Permutation_cons_app [_; _; _] []). apply Permutation_refl.
Qed.

Print Assumptions nauty_orbits_aut.
