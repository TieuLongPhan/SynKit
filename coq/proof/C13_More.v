(** C13 -- the [clusters] list returned by iterative_cluster and [rule_to_cluster] describe the same assignment (cluster c
    lists exactly the indices mapped to c: clusters_sync); the attribute premise of the theorems is necessary; worked
    instances of the theorems of proof/C13_Proof.v. *)
From Coq Require Import List ZArith Lia Permutation.
From SK Require Import lib.LGraph lib.C13_Partition model.C13_Model proof.C13_Proof.
Import ListNotations.

(** the (index, class) pairs listed by a list of clusters numbered from [s] *)
Fixpoint pairs_of (s : nat) (cls : list (list nat)) : list (nat * nat) :=
  match cls with
  | [] => []
  | cl :: r => map (fun j => (j, s)) cl ++ pairs_of (S s) r
  end.

Lemma pairs_of_app s a b : pairs_of s (a ++ b) = pairs_of s a ++ pairs_of (s + length a) b.
Proof.
  revert s. induction a as [|cl r IH]; intros s; simpl; [now rewrite Nat.add_0_r|].
  rewrite IH, <- app_assoc. now rewrite Nat.add_succ_r.
Qed.

Lemma pairs_of_in s cls j c : In (j, c) (pairs_of s cls) <-> s <= c /\ In j (nth (c - s) cls []) /\ c - s < length cls.
Proof.
  revert s. induction cls as [|cl r IH]; intros s; simpl.
  - split; [intros []|]. intros (_ & _ & H). lia.
  - rewrite in_app_iff, in_map_iff, IH. split.
    + intros [(j' & E & Hj)|(H1 & H2 & H3)].
      * inversion E; subst. rewrite Nat.sub_diag. split; [lia|]. split; [exact Hj|lia].
      * replace (c - s) with (S (c - S s)) by lia. split; [lia|]. split; [exact H2|lia].
    + intros (H1 & H2 & H3). destruct (Nat.eq_dec c s) as [->|Hne].
      * left. rewrite Nat.sub_diag in H2. exists j. split; [reflexivity|exact H2].
      * right. replace (c - s) with (S (c - S s)) in H2, H3 by lia. split; [lia|]. split; [exact H2|lia].
Qed.

Section Sync.
Variable iso : item -> item -> bool.
Variable mode : attr_mode.

Lemma gc_outer_sync todo : forall visited clusters r2c,
  NoDup (map fst todo) -> r2c = pairs_of 0 clusters ->
  snd (gc_outer iso mode todo visited clusters r2c) = pairs_of 0 (fst (gc_outer iso mode todo visited clusters r2c)).
Proof.
  induction todo as [|[i xi] rest IH]; intros visited clusters r2c Hnd E; [exact E|].
  inversion Hnd as [|? ? Hi Hnd']; subst. rewrite (gc_outer_cons iso mode _ _ _ _ _ _ Hi Hnd').
  destruct (memb i visited); [now apply IH|]. apply IH; [exact Hnd'|].
  rewrite pairs_of_app. cbn [pairs_of map]. now rewrite app_nil_r.
Qed.

Theorem clusters_sync data :
  snd (gc_iterative iso mode data) = pairs_of 0 (fst (gc_iterative iso mode data)).
Proof. apply gc_outer_sync; [rewrite enum_from_fst; apply seq_NoDup|reflexivity]. Qed.

Corollary clusters_sync_in data j c :
  In (j, c) (snd (gc_iterative iso mode data)) <->
  In j (nth c (fst (gc_iterative iso mode data)) []) /\ c < length (fst (gc_iterative iso mode data)).
Proof.
  rewrite clusters_sync, pairs_of_in, Nat.sub_0_r. split; [intros (_ & H); exact H|intros H; split; [lia|exact H]].
Qed.

End Sync.

Lemma noninvariant_attribute_splits :
  exists (iso : item -> item -> bool) (data : list item),
    (forall x y, iso x y = true) /\
    gc_fit iso AStr data = [Some 0; Some 1].
Proof.
  exists (fun _ _ => true), [MkItem 0 [97%Z] (LG [] []); MkItem 1 [98%Z] (LG [] [])].
  split; [reflexivity|vm_compute; reflexivity].
Qed.

Module Example_more.
Import Example_abstract.

Definition fit_data := gc_fit iso0 ANone data.
Definition iter_data := gc_iterative iso0 ANone data.

Example partition_full_nonvacuous :
  fit_data = [Some 0; Some 1; Some 0; Some 1] /\
  iter_data = ([[0; 2]; [1; 3]], [(0, 0); (2, 0); (1, 1); (3, 1)]) /\
  exists ci cj, nth_error fit_data 1 = Some (Some ci) /\ nth_error fit_data 2 = Some (Some cj) /\
                ci < length (fst iter_data) /\ In (1, ci) (snd iter_data) /\ (ci = cj <-> iso0 (mk 25) (mk 17) = true).
Proof.
  split; [vm_compute; reflexivity|]. split; [vm_compute; reflexivity|].
  exact (proj2 (partition_full iso0 ANone (fun _ => True) iso0_refl iso0_sym iso0_trans attr0 data data_D)
           1 2 (mk 25) (mk 17) eq_refl eq_refl).
Qed.

Example clusters_agree_nonvacuous :
  In (3, 1) (snd iter_data) /\ In 3 (nth 1 (fst iter_data) []) /\ ~ In (3, 0) (snd iter_data).
Proof.
  split; [vm_compute; tauto|]. split; [vm_compute; tauto|].
  intros H. apply (clusters_sync_in iso0 ANone data 3 0) in H. destruct H as (H & _). vm_compute in H.
  destruct H as [H|[H|[]]]; discriminate.
Qed.

(** arrival order reversed, batches of 3: class numbers differ from the one-shot run, the partition does not *)
Definition batched_rev := fst (fit iso0 ANone (rev data) [] (Some 3) []).
Example batch_any_order_nonvacuous :
  batched_rev = [0; 1; 0; 1]%Z /\ rev data = [mk 20; mk 17; mk 25; mk 11] /\
  (nth_error fit_data 0 = nth_error fit_data 2 <-> nth_error batched_rev 3 = nth_error batched_rev 1) /\
  (nth_error fit_data 0 = nth_error fit_data 1 <-> nth_error batched_rev 3 = nth_error batched_rev 2).
Proof.
  split; [vm_compute; reflexivity|]. split; [reflexivity|].
  pose proof (batch_any_order iso0 ANone (fun _ => True) iso0_refl iso0_sym iso0_trans attr0 data (rev data) (Some 3) []
                (Permutation_rev data) data_D (le_S _ _ (le_S _ _ (le_n 1)))) as H.
  split.
  - exact (H 0 2 3 1 (mk 11) (mk 17) eq_refl eq_refl eq_refl eq_refl).
  - exact (H 0 1 3 2 (mk 11) (mk 25) eq_refl eq_refl eq_refl eq_refl).
Qed.

Example fit_is_incremental_run_nonvacuous :
  fit iso0 ANone data [(mk 29, 5%Z)] None [] = ([6; 5; 6; 5]%Z, [(mk 29, 5%Z); (mk 11, 6%Z)]) /\
  fit iso0 ANone data [(mk 29, 5%Z)] None [] = cluster iso0 ANone data [(mk 29, 5%Z)].
Proof.
  split; [vm_compute; reflexivity|].
  apply fit_is_cluster; [exact I|left; discriminate].
Qed.
End Example_more.

Module Example_run.
Import Example_abstract.
Definition ts0 : list template := [(mk 29, 5%Z)].
Definition run0 := cluster iso0 ANone data ts0.
Lemma ts0_coherent : coherent_iso iso0 (fun _ => True) ts0.
Proof. split; [repeat constructor|]. intros t t' [<-|[]] [<-|[]]. vm_compute. split; reflexivity. Qed.

Example incremental_run_nonvacuous :
  run0 = ([6; 5; 6; 5]%Z, [(mk 29, 5%Z); (mk 11, 6%Z)]) /\
  (forall i j x y c c', nth_error data i = Some x -> nth_error data j = Some y ->
      nth_error (fst run0) i = Some c -> nth_error (fst run0) j = Some c' -> (c = c' <-> iso0 x y = true)) /\
  (forall i x c t, nth_error data i = Some x -> nth_error (fst run0) i = Some c -> In t (snd run0) ->
      (c = snd t <-> iso0 (fst t) x = true)).
Proof.
  split; [vm_compute; reflexivity|].
  destruct (incremental_run iso0 ANone (fun _ => True) iso0_refl iso0_sym iso0_trans attr0 data ts0 (fst run0) (snd run0)
              ts0_coherent data_D (surjective_pairing run0)) as (_ & _ & _ & H1 & H2).
  split; [exact H1|exact H2].
Qed.
End Example_run.
