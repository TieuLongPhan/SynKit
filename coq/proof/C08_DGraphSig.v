(** C08 — directed inputs: NautyCanonicalizer.graph_signature on a DiGraph (model [dgraph_sig_label], the two-triangle label
    of the canonical digraph read in the order 1..N) is the minimal label of the search, invariant under isomorphism of
    digraphs and sound: equal labels make two digraphs isomorphic as digraphs.  Mirrors C08_GraphSig.v. *)
From Coq Require Import String List NArith ZArith Bool Arith Lia Permutation.
From SK Require Import lib.LGraph lib.IRSortKeys lib.IRCore lib.IRSearch lib.StrJoin.
From SK Require Import model.C08_Model model.C08_Digraph proof.C08_Spec proof.C08_DSpec proof.C08_Sort proof.C08_Faithful proof.C08_Cov
                       proof.C08_SigFun proof.C08_Render proof.C08_IR proof.C08_Nauty proof.C08_Sound proof.C08_Equiv proof.C08_Invariant
                       proof.C08_GraphSig proof.C08_DSer proof.C08_DNauty proof.C08_DEquiv proof.C08_DInvariant.
From SK Require lib.IRInst.
Import ListNotations.
Open Scope string_scope. Open Scope list_scope. Open Scope nat_scope.

Notation ix p := (apply_map (mapping_of p)).

Theorem dgraph_sig_label_min g : dwf g -> dgraph_sig_label g = dnlabel g (dnauty_perm g).
Proof.
  intros Hg. unfold dgraph_sig_label, dcanon_nauty.
  apply (label_in_canonical_order dnlabel g (dnauty_perm g)); [apply Hg|apply Hg|apply dnauty_perm_perm; apply Hg|].
  intros pi pi_inj. apply (dnlabel_rel pi pi_inj g (relabel pi g) Hg (dgeq_cov_refl _)).
Qed.

Theorem dgraph_sig_label_min_both g : dwf g ->
  dgraph_sig_label g = dnlabel g (dnauty_perm g) /\ dnauty_label g = Some (dnlabel g (dnauty_perm g)).
Proof. intros Hg. split; [apply dgraph_sig_label_min; auto|apply (dnauty_perm_leaf g (proj1 Hg))]. Qed.

Lemma diso_label_eq g h : dwf g -> dwf h -> diso_cov g h -> dnauty_label h = dnauty_label g.
Proof.
  intros Hg Hh (f & Hf & Hq0).
  destruct (global_renumbering dgeq_cov g h f (proj1 (proj2 Hg)) Hf Hq0) as (pi & pi_inj & _ & Hq).
  apply (dnauty_label_rel pi pi_inj g h Hg Hq).
Qed.

Theorem dgraph_sig_invariant g h : dwf g -> dwf h -> diso_cov g h -> dgraph_sig_label g = dgraph_sig_label h.
Proof.
  intros Hg Hh Hi. rewrite !dgraph_sig_label_min by auto.
  destruct (dnauty_perm_leaf g (proj1 Hg)) as [_ Ep]. destruct (dnauty_perm_leaf h (proj1 Hh)) as [_ Eq].
  pose proof (diso_label_eq g h Hg Hh Hi) as E. rewrite Ep, Eq in E. inversion E. reflexivity.
Qed.

Lemma dnlabel_length g h p q : (forall v, In v p -> el_ok (el (attr_of g v))) -> (forall v, In v q -> el_ok (el (attr_of h v))) ->
  dnlabel g p = dnlabel h q -> length p = length q.
Proof.
  intros Hp Hq. apply label_length; auto; try (intros ->; reflexivity);
    apply Forall_forall; intros x I; apply in_map_iff in I; destruct I as (ab & <- & _); rewrite dedge_bit_cov; apply EB_nosep.
Qed.

Theorem dequal_labels_iso g h p q : dwf g -> dwf h -> els_ok g -> els_ok h ->
  Permutation p (node_ids g) -> Permutation q (node_ids h) -> dnlabel g p = dnlabel h q -> diso_cov g h.
Proof.
  intros Hg Hh Eg Eh Pp Pq E.
  assert (Hl : length p = length q).
  { apply (dnlabel_length g h); auto; intros v _; apply attr_el_ok; auto. }
  apply (dcommon_form_iso g h (ix p) (ix q)); auto; try (apply ix_inj_on; auto; apply Hg || apply Hh).
  apply dequal_labels_dgeq_cov; auto.
Qed.

Theorem dgraph_sig_sound g h : dwf g -> dwf h -> els_ok g -> els_ok h -> dgraph_sig_label g = dgraph_sig_label h -> diso_cov g h.
Proof.
  intros Hg Hh Eg Eh E. rewrite !dgraph_sig_label_min in E by auto.
  apply (dequal_labels_iso g h (dnauty_perm g) (dnauty_perm h)); auto; apply dnauty_perm_perm; [apply Hg|apply Hh].
Qed.

Theorem dgraph_signature_spec (D : Type) (digest : str -> D) g h : dwf g -> dwf h -> els_ok g -> els_ok h ->
  (digest (dgraph_sig_label g) = digest (dgraph_sig_label h) -> dgraph_sig_label g = dgraph_sig_label h) ->
  (digest (dgraph_sig_label g) = digest (dgraph_sig_label h) <-> diso_cov g h).
Proof.
  intros Hg Hh Eg Eh Hd. split.
  - intros E. apply dgraph_sig_sound; auto.
  - intros Hi. f_equal. apply dgraph_sig_invariant; auto.
Qed.

(* non-vacuity: the witness pair of repair R5b gets one label, the transposed digraph another *)
Example dgs_ex : dgraph_sig_label dn_g = dgraph_sig_label dn_h /\ dgraph_sig_label dn_g <> dgraph_sig_label dn_t.
Proof.
  destruct dinv_ex as (Wg & Wh & _ & Hi & _). split; [apply dgraph_sig_invariant; assumption|].
  rewrite !dgraph_sig_label_min by (apply dwfb_sound; reflexivity). vm_compute. discriminate.
Qed.

Print Assumptions dgraph_signature_spec.
