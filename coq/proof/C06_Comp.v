(** C06 — the component-aware strategy as a program.  Its loops with
    early exits ([cc_inner]/[cc_outer]/[per_cc_all]/[bt]) are shown equal to "prefix of the
    limit-free computation" ([percc], [bt_unl], [comp_unl]); the public entry point then
    satisfies the [limit] formula, up to the per-component enumeration guard.  Stdlib lists. *)
From Coq Require Import List NArith Bool Arith Lia Permutation.
From SK Require Import lib.LGraph lib.Mono lib.Reach model.C06_Model lib.C06_Spec proof.C06_All.
Import ListNotations.

(** ---------- generic list facts ---------- *)
Lemma firstn_short {X} k (l : list X) : length (firstn k l) < k -> firstn k l = l.
Proof.
  intros Hlt. rewrite firstn_length in Hlt. apply firstn_all2. lia.
Qed.

Lemma firstn_app_full {X} k (l1 l2 : list X) : k <= length l1 -> firstn k (l1 ++ l2) = firstn k l1.
Proof.
  intros Hle. rewrite firstn_app. replace (k - length l1) with 0 by lia. simpl. apply app_nil_r.
Qed.

Lemma flat_map_all_nil {X Y} (f : X -> list Y) l : (forall x, In x l -> f x = []) -> flat_map f l = [].
Proof.
  induction l as [|x l IH]; simpl; intros Hf; [reflexivity|].
  rewrite (Hf x) by (left; reflexivity). apply IH. intros y I. apply Hf. right. exact I.
Qed.

(** ---------- limit-free back-tracking ---------- *)
Fixpoint bt_unl (ordered : list (list (nat * mapping))) (used : list nat) (acc : mapping) : list mapping :=
  match ordered with
  | [] => [acc]
  | lvl :: rest =>
      flat_map (fun hm => if memnat (fst hm) used || clash (snd hm) acc then []
                          else bt_unl rest (fst hm :: used) (snd hm ++ acc)) lvl
  end.

Definition bt_loop (maxr thr : N) (rest : list (list (nat * mapping))) (used : list nat) (acc : mapping) :=
  fix loop (cs : list (nat * mapping)) (res : list mapping * N) {struct cs} : list mapping * N :=
    match cs with
    | [] => res
    | (hi, m) :: cs' =>
        if memnat hi used || clash m acc then loop cs' res
        else let res' := bt maxr thr rest (hi :: used) (m ++ acc) res in
             if stop maxr thr (snd res') then res' else loop cs' res'
    end.

Lemma bt_cons maxr thr lvl rest used acc res :
  bt maxr thr (lvl :: rest) used acc res =
  if stop maxr thr (snd res) then res else bt_loop maxr thr rest used acc lvl res.
Proof. reflexivity. Qed.

Lemma bt_nil maxr thr used acc res :
  bt maxr thr [] used acc res =
  if stop maxr thr (snd res) then res else (acc :: fst res, N.succ (snd res)).
Proof. reflexivity. Qed.

Definition bt_post (maxr thr : N) (L : list mapping) (res : list mapping) (n : N) : list mapping * N :=
  let add := firstn (N.to_nat (lim maxr thr - n)) L in (rev add ++ res, (n + lenN add)%N).

Lemma bt_post_nil maxr thr res n : bt_post maxr thr [] res n = (res, n).
Proof. unfold bt_post. rewrite firstn_nil. cbn [rev app]. f_equal. apply N.add_0_r. Qed.

Lemma bt_post_stop maxr thr L res n : (lim maxr thr <= n)%N -> bt_post maxr thr L res n = (res, n).
Proof.
  intros Hs. unfold bt_post. replace (N.to_nat (lim maxr thr - n)) with 0 by lia.
  cbn [firstn rev app]. f_equal. apply N.add_0_r.
Qed.

Lemma bt_spec maxr thr : forall ordered used acc res n,
  bt maxr thr ordered used acc (res, n) = bt_post maxr thr (bt_unl ordered used acc) res n.
Proof.
  induction ordered as [|lvl rest IH]; intros used acc res n.
  - rewrite bt_nil. cbn [snd fst]. rewrite stop_spec.
    destruct (N.leb_spec (lim maxr thr) n) as [Hs|Hgo]; [symmetry; apply bt_post_stop; exact Hs|].
    unfold bt_post. cbn [bt_unl].
    destruct (N.to_nat (lim maxr thr - n)) eqn:E; [lia|]. simpl. rewrite firstn_nil. simpl. f_equal. unfold lenN. simpl. lia.
  - rewrite bt_cons. cbn [snd]. rewrite stop_spec. cbn [bt_unl].
    destruct (N.leb_spec (lim maxr thr) n) as [Hs|_]; [symmetry; apply bt_post_stop; exact Hs|].
    revert res n. induction lvl as [|[hi m] cs IHcs]; intros res n; [symmetry; apply bt_post_nil|].
    cbn [bt_loop flat_map fst snd]. fold (bt_loop maxr thr rest used acc).
    destruct (memnat hi used || clash m acc); [simpl app; apply IHcs|].
    rewrite IH. set (L1 := bt_unl rest (hi :: used) (m ++ acc)).
    set (L2 := flat_map _ cs) in *.
    unfold bt_post. cbn [snd]. rewrite stop_spec.
    set (k := N.to_nat (lim maxr thr - n)).
    destruct (N.leb_spec (lim maxr thr) (n + lenN (firstn k L1))) as [Hs|Hc].
    + rewrite firstn_app_full; [reflexivity|].
      unfold lenN in Hs. rewrite firstn_length in Hs. lia.
    + assert (Hall : firstn k L1 = L1).
      { apply firstn_short. unfold lenN in Hc. lia. }
      rewrite Hall in *. rewrite IHcs. unfold bt_post. fold L2.
      rewrite firstn_app. fold k. rewrite Hall.
      replace (N.to_nat (lim maxr thr - (n + lenN L1))) with (k - length L1) by (unfold lenN; lia).
      rewrite rev_app_distr, <- app_assoc. f_equal. rewrite lenN_app. lia.
Qed.

(** the whole back-tracking: the first [lim] results of the limit-free one *)
Lemma bt_top maxr thr ordered :
  rev (fst (bt maxr thr ordered [] [] ([], 0%N))) = firstn (N.to_nat (lim maxr thr)) (bt_unl ordered [] []).
Proof. rewrite bt_spec. unfold bt_post. cbn [fst]. rewrite app_nil_r, rev_involutive, N.sub_0_r. reflexivity. Qed.

Lemma bt_unl_empty_level ordered : In [] ordered -> forall used acc, bt_unl ordered used acc = [].
Proof.
  induction ordered as [|lvl rest IH]; intros I used acc; [destruct I|].
  destruct I as [->|I]; [reflexivity|]. simpl. apply flat_map_all_nil. intros hm _.
  destruct (memnat (fst hm) used || clash (snd hm) acc); [reflexivity|]. apply IH. exact I.
Qed.

Section Oracle.
Variable enum : list N -> list N -> list mapping.

(** ---------- per-component embedding lists ---------- *)
Definition percc (cands : list (nat * list N)) (pc : list N) : list (nat * mapping) :=
  flat_map (fun ih => map (pair (fst ih)) (enum (snd ih) pc)) cands.

Definition cands (hcs : list (nat * list N)) (pc : list N) : list (nat * list N) :=
  filter (fun ih => length pc <=? length (snd ih)) hcs.

Lemma cc_inner_flat cap thr i rest : forall it maps n, capped cap n = false ->
  match cc_inner cap thr i it maps n with
  | None => scan cap thr (map (pair i) it ++ rest) maps n = None
  | Some (maps', n') =>
      if capped cap n' then scan cap thr (map (pair i) it ++ rest) maps n = Some (rev maps')
      else scan cap thr (map (pair i) it ++ rest) maps n = scan cap thr rest maps' n'
  end.
Proof.
  induction it as [|m it IH]; intros maps n Hc.
  - simpl. rewrite Hc. reflexivity.
  - cbn [cc_inner map app scan]. destruct (capped cap (N.succ n)) eqn:Hc'.
    + rewrite Hc'. reflexivity.
    + destruct (thr <? N.succ n)%N; [reflexivity|]. apply IH. exact Hc'.
Qed.

Lemma cc_outer_flat cap thr pc : forall cs maps n, capped cap n = false ->
  cc_outer enum cap thr pc cs maps n = scan cap thr (percc cs pc) maps n.
Proof.
  induction cs as [|[i hc] r IH]; intros maps n Hc; [reflexivity|].
  cbn [cc_outer percc flat_map fst snd]. fold (percc r pc).
  pose proof (cc_inner_flat cap thr i (percc r pc) (enum hc pc) maps n Hc) as Hx.
  destruct (cc_inner cap thr i (enum hc pc) maps n) as [[maps' n']|]; [|symmetry; exact Hx].
  destruct (capped cap n') eqn:Hc'; [symmetry; exact Hx|].
  rewrite Hx. apply IH. exact Hc'.
Qed.

Lemma cc_outer_spec cap thr pc cs :
  cc_outer enum cap thr pc cs [] 0%N = scan_result cap thr (percc cs pc).
Proof.
  rewrite cc_outer_flat by (apply capped_false; lia). apply scan_all.
Qed.

(** the loop over the pattern components *)
Fixpoint per_all (cap thr : N) (hcs : list (nat * list N)) (pcs : list (list N)) : option (list (list (nat * mapping))) :=
  match pcs with
  | [] => Some []
  | pc :: r =>
      match scan_result cap thr (percc (cands hcs pc) pc) with
      | None | Some [] => None
      | Some maps => match per_all cap thr hcs r with None => None | Some rest => Some (maps :: rest) end
      end
  end.

Lemma per_cc_all_spec cap thr hcs pcs : per_cc_all enum cap thr hcs pcs = per_all cap thr hcs pcs.
Proof.
  induction pcs as [|pc r IH]; [reflexivity|]. cbn [per_cc_all per_all]. fold (cands hcs pc).
  rewrite IH. destruct (cands hcs pc) as [|c cs] eqn:Ec.
  - cbn [percc flat_map]. rewrite scan_result_nil. reflexivity.
  - rewrite cc_outer_spec. reflexivity.
Qed.

(** no cap on the per-component lists (several pattern components) *)
Lemma per_all_nocap thr hcs pcs :
  match per_all 0 thr hcs pcs with
  | Some per => per = map (fun pc => percc (cands hcs pc) pc) pcs /\ ~ In [] per
  | None => (exists pc, In pc pcs /\ (thr < lenN (percc (cands hcs pc) pc))%N) \/
            In [] (map (fun pc => percc (cands hcs pc) pc) pcs)
  end.
Proof.
  induction pcs as [|pc r IH]; cbn [per_all map]; [split; [reflexivity|intros []]|].
  rewrite scan_result_nocap.
  destruct (N.ltb_spec thr (lenN (percc (cands hcs pc) pc))) as [Hlt|Hge].
  - left. exists pc. split; [left; reflexivity|exact Hlt].
  - destruct (percc (cands hcs pc) pc) as [|x L] eqn:EL.
    + right. left. reflexivity.
    + destruct (per_all 0 thr hcs r) as [rest|].
      * destruct IH as [-> Hne]. split; [reflexivity|]. intros [E|I]; [discriminate|contradiction].
      * destruct IH as [(pc' & I & Hlt)|I].
        -- left. exists pc'. split; [right; exact I|exact Hlt].
        -- right. right. exact I.
Qed.

(** ---------- the limit-free component-aware result ---------- *)
Definition percc_of (H : graph) (pc : list N) : list (nat * mapping) :=
  percc (cands (index_from 0 (comps H)) pc) pc.

Definition comp_unl (strict : bool) (H P : graph) : list mapping :=
  let hcc := length (comps H) in
  let pcc := length (comps P) in
  if pcc =? 0 then [[]]
  else if hcc <? pcc then enum (node_ids H) (node_ids P)
  else if (pcc <? hcc) && strict then []
  else bt_unl (sort_len (map (percc_of H) (comps P))) [] [].

Lemma sort_len_perm {X} (l : list (list X)) : Permutation (sort_len l) l.
Proof.
  induction l as [|x l IH]; [constructor|]. simpl.
  assert (Hi : forall s, Permutation (insert_len x s) (x :: s)).
  { induction s as [|y s IHs]; simpl; [repeat constructor|].
    destruct (length x <=? length y); [apply Permutation_refl|].
    eapply Permutation_trans; [apply perm_skip; exact IHs|apply perm_swap]. }
  eapply Permutation_trans; [apply Hi|]. constructor. exact IH.
Qed.

Lemma sort_len_single {X} (x : list X) : sort_len [x] = [x].
Proof. reflexivity. Qed.

Lemma clash_nil m : clash m [] = false.
Proof. unfold clash. induction m as [|x m IH]; simpl; auto. Qed.

(** what [bt_unl] makes of a pick on the last level: the embedding in front of the empty accumulator *)
Definition snd0 (hm : nat * mapping) : mapping := snd hm ++ [].
Lemma bt_unl_single L : bt_unl [L] [] [] = map snd0 L.
Proof.
  unfold snd0. simpl. induction L as [|[h m] L IH]; simpl; [reflexivity|]. rewrite clash_nil. simpl. f_equal. exact IH.
Qed.

(** the engine of the component-aware strategy before the final guard, per-component lists uncapped *)
Lemma find_comp_engine maxr thr H P :
  let pcs := comps P in
  match per_cc_all enum 0 thr (index_from 0 (comps H)) pcs with
  | None => (exists pc, In pc pcs /\ (thr < lenN (percc_of H pc))%N) \/
            bt_unl (sort_len (map (percc_of H) pcs)) [] [] = []
  | Some per =>
      rev (fst (bt maxr thr (sort_len per) [] [] ([], 0%N))) =
      firstn (N.to_nat (lim maxr thr)) (bt_unl (sort_len (map (percc_of H) pcs)) [] [])
  end.
Proof.
  intros pcs. rewrite per_cc_all_spec.
  pose proof (per_all_nocap thr (index_from 0 (comps H)) pcs) as Hx.
  destruct (per_all 0 thr (index_from 0 (comps H)) pcs) as [per|].
  - destruct Hx as [-> _]. apply bt_top.
  - destruct Hx as [Hx|Hx]; [left; exact Hx|]. right. apply bt_unl_empty_level.
    eapply Permutation_in; [apply Permutation_sym, sort_len_perm|exact Hx].
Qed.

Lemma limit_nil {X} maxr thr : @limit X maxr thr [] = [].
Proof. unfold limit. simpl. destruct (thr <? _)%N; [reflexivity|apply firstn_nil]. Qed.

Lemma firstn_lim_nil {X} maxr thr (U : list X) : firstn (N.to_nat (lim maxr thr)) U = [] -> U = [].
Proof.
  pose proof (lim_pos maxr thr). destruct U; [reflexivity|].
  destruct (N.to_nat (lim maxr thr)) eqn:E; [lia|discriminate].
Qed.

(** what [find_comp] computes for a pattern with the single component [pc] *)
Definition single_engine (maxr thr : N) (H : graph) (pc : list N) : list mapping :=
  match per_cc_all enum maxr thr (index_from 0 (comps H)) [pc] with
  | None => []
  | Some per => rev (fst (bt maxr thr (sort_len per) [] [] ([], 0%N)))
  end.

(** single pattern component: the per-component list is capped by max_results, and the back-tracking
    only strips the component indices *)
Lemma find_comp_single_result maxr thr H pc :
  single_engine maxr thr H pc = match scan_result maxr thr (map snd0 (percc_of H pc)) with Some V => V | None => [] end.
Proof.
  unfold single_engine. rewrite per_cc_all_spec, scan_result_map. cbn [per_all]. fold (percc_of H pc).
  destruct (scan_result maxr thr (percc_of H pc)) as [[|x V]|] eqn:E; try reflexivity.
  rewrite sort_len_single, bt_top, bt_unl_single. cbn [option_map].
  rewrite (scan_result_some _ _ _ _ E), <- firstn_map, firstn_firstn, Nat.min_id. reflexivity.
Qed.

Lemma find_comp_single maxr thr H pc :
  guard thr (single_engine maxr thr H pc) = limit maxr thr (bt_unl (sort_len [percc_of H pc]) [] []).
Proof. rewrite find_comp_single_result, sort_len_single, bt_unl_single. apply guard_scan_result. Qed.

Lemma find_comp_single_nil_inv maxr thr H pc :
  single_engine maxr thr H pc = [] -> percc_of H pc = [] \/ (thr < lenN (percc_of H pc))%N.
Proof.
  rewrite find_comp_single_result. destruct (scan_result maxr thr (map snd0 (percc_of H pc))) as [V|] eqn:E.
  - intros ->. left. apply scan_result_some in E. symmetry in E. apply firstn_lim_nil in E.
    destruct (percc_of H pc); [reflexivity|discriminate].
  - intros _. right. apply scan_result_none in E. unfold lenN in *. rewrite map_length in E. exact E.
Qed.

Lemma find_comp_single_of_nil maxr thr H pc : percc_of H pc = [] ->
  single_engine maxr thr H pc = [].
Proof. intros E. rewrite find_comp_single_result, E. cbn [map]. rewrite scan_result_nil. reflexivity. Qed.

(** ---------- the public entry point, component-aware strategy ---------- *)
Definition cc_guard (thr : N) (H P : graph) : Prop :=
  exists pc, In pc (comps P) /\ (thr < lenN (percc_of H pc))%N.

(** [find_comp] before the final guard of [find]: either the per-component guard fired, or guarded it is [limit] of
    [comp_unl]; the two clauses about the empty result are what the fallback strategy ([find_bt_limits]) needs to know
    when it falls through *)
Lemma find_comp_pre maxr thr strict H P :
  let r := find_comp enum maxr thr strict H P in
  (r = [] /\ cc_guard thr H P) \/
  (guard thr r = limit maxr thr (comp_unl strict H P) /\
   (r = [] -> comp_unl strict H P = [] \/ cc_guard thr H P \/
              comp_unl strict H P = enum (node_ids H) (node_ids P)) /\
   (comp_unl strict H P = [] -> r = [])).
Proof.
  cbv zeta. unfold find_comp, comp_unl.
  destruct (length (comps P) =? 0) eqn:E0.
  { right. split; [|split; discriminate]. rewrite <- guard_firstn_lim. pose proof (lim_pos maxr thr).
    destruct (N.to_nat (lim maxr thr)) eqn:E; [lia|]. cbn [firstn]. rewrite firstn_nil. reflexivity. }
  destruct (length (comps H) <? length (comps P)) eqn:E1.
  { right. split; [|split; [auto|]].
    - apply guard_find_all.
    - intros E. unfold find_all. rewrite E. reflexivity. }
  destruct ((length (comps P) <? length (comps H)) && strict) eqn:E2.
  { right. split; [|split; auto]. rewrite guard_nil, limit_nil. reflexivity. }
  unfold cc_cap. destruct (length (comps P) =? 1) eqn:E3.
  - right. apply Nat.eqb_eq in E3. destruct (comps P) as [|pc [|pc' r]] eqn:Ec; try discriminate.
    split; [apply find_comp_single|]. cbn [map]. rewrite sort_len_single, bt_unl_single. split.
    + intros E. apply find_comp_single_nil_inv in E.
      destruct E as [->|E]; [left; reflexivity|].
      right. left. exists pc. split; [rewrite Ec; left; reflexivity|exact E].
    + intros E. apply find_comp_single_of_nil. destruct (percc_of H pc); [reflexivity|discriminate].
  - pose proof (find_comp_engine maxr thr H P) as Hx. cbv zeta in Hx.
    destruct (per_cc_all enum 0 thr (index_from 0 (comps H)) (comps P)) as [per|].
    + right. rewrite Hx. split; [apply guard_firstn_lim|]. split.
      * intros E. left. exact (firstn_lim_nil _ _ _ E).
      * intros ->. apply firstn_nil.
    + destruct Hx as [Hx|Hx].
      * left. split; [reflexivity|exact Hx].
      * right. rewrite Hx, guard_nil, limit_nil. auto.
Qed.

Theorem find_comp_limits maxr thr strict H P :
  find enum (Cfg 1 maxr thr strict false) H P = limit maxr thr (comp_unl strict H P) \/
  (find enum (Cfg 1 maxr thr strict false) H P = [] /\ cc_guard thr H P).
Proof.
  change (find enum (Cfg 1 maxr thr strict false) H P) with (guard thr (find_comp enum maxr thr strict H P)).
  destruct (find_comp_pre maxr thr strict H P) as [[E G]|[E _]]; cbv zeta in E.
  - right. rewrite E. split; [apply guard_nil|exact G].
  - left. exact E.
Qed.

(** with a threshold that is large enough the result is the limit-free one *)
Definition comp_bound (strict : bool) (H P : graph) : N :=
  fold_right N.max (lenN (comp_unl strict H P)) (map (fun pc => lenN (percc_of H pc)) (comps P)).

Lemma fold_max_ge (b : N) (l : list N) : (b <= fold_right N.max b l)%N /\ forall x, In x l -> (x <= fold_right N.max b l)%N.
Proof.
  induction l as [|y l [IH1 IH2]]; simpl; [split; [lia|intros ? []]|].
  split; [lia|]. intros x [->|I]; [lia|]. specialize (IH2 x I). lia.
Qed.

Lemma comp_bound_spec strict H P :
  (lenN (comp_unl strict H P) <= comp_bound strict H P)%N /\ ~ cc_guard (comp_bound strict H P) H P.
Proof.
  destruct (fold_max_ge (lenN (comp_unl strict H P)) (map (fun pc => lenN (percc_of H pc)) (comps P))) as [B1 B2].
  split; [exact B1|]. intros (pc & I & Hlt).
  assert (lenN (percc_of H pc) <= comp_bound strict H P)%N by (apply B2, in_map_iff; exists pc; auto). lia.
Qed.

Lemma cc_guard_mono thr T H P : (thr <= T)%N -> cc_guard T H P -> cc_guard thr H P.
Proof. intros Hle (pc & I & Hlt). exists pc. split; [exact I|lia]. Qed.

Theorem find_comp_unlimited T strict H P : (comp_bound strict H P <= T)%N ->
  find enum (Cfg 1 0 T strict false) H P = comp_unl strict H P.
Proof.
  intros HT. destruct (comp_bound_spec strict H P) as [B1 B2].
  destruct (find_comp_limits 0 T strict H P) as [E|[_ G]].
  - rewrite E. apply limit_none. lia.
  - destruct (B2 (cc_guard_mono _ _ _ _ HT G)).
Qed.

Corollary find_comp_stable T T' strict H P : (comp_bound strict H P <= T)%N -> (T <= T')%N ->
  find enum (Cfg 1 0 T' strict false) H P = find enum (Cfg 1 0 T strict false) H P.
Proof. intros HT HT'. rewrite !find_comp_unlimited; [reflexivity|exact HT|exact (N.le_trans _ _ _ HT HT')]. Qed.

(** ---------- fallback strategy ---------- *)
Definition bt_unl_result (strict : bool) (H P : graph) : list mapping :=
  match comp_unl strict H P with [] => enum (node_ids H) (node_ids P) | r => r end.

Theorem find_bt_limits maxr thr strict H P :
  let R := find enum (Cfg 2 maxr thr strict false) H P in
  R = limit maxr thr (bt_unl_result strict H P) \/
  (cc_guard thr H P /\ R = limit maxr thr (enum (node_ids H) (node_ids P))).
Proof.
  cbv zeta.
  change (find enum (Cfg 2 maxr thr strict false) H P) with (guard thr (find_bt enum maxr thr strict H P)).
  unfold find_bt, bt_unl_result.
  pose proof (find_comp_pre maxr thr strict H P) as Hc. cbv zeta in Hc.
  pose proof (guard_find_all enum maxr thr H P) as Ha.
  destruct (find_comp enum maxr thr strict H P) as [|x l] eqn:Ef.
  - rewrite Ha. destruct Hc as [[_ G]|(_ & Hn & _)]; [right; split; [exact G|reflexivity]|].
    destruct (Hn eq_refl) as [->|[G| ->]].
    + left. reflexivity.
    + right. split; [exact G|reflexivity].
    + left. destruct (enum (node_ids H) (node_ids P)); reflexivity.
  - destruct Hc as [[E _]|(E & _ & Hn)]; [discriminate|]. left. rewrite E.
    destruct (comp_unl strict H P) as [|u U] eqn:EU; [|reflexivity].
    specialize (Hn eq_refl). discriminate.
Qed.

Theorem find_bt_unlimited T strict H P :
  (comp_bound strict H P <= T)%N -> (lenN (enum (node_ids H) (node_ids P)) <= T)%N ->
  find enum (Cfg 2 0 T strict false) H P = bt_unl_result strict H P.
Proof.
  intros HT Ha. destruct (comp_bound_spec strict H P) as [B1 B2].
  assert (Hb : (lenN (bt_unl_result strict H P) <= T)%N).
  { unfold bt_unl_result. destruct (comp_unl strict H P); [exact Ha|lia]. }
  destruct (find_bt_limits 0 T strict H P) as [E|[G _]]; cbv zeta in *.
  - rewrite E. apply limit_none. exact Hb.
  - destruct (B2 (cc_guard_mono _ _ _ _ HT G)).
Qed.
End Oracle.
