(** C07 — get_mappings under relabelling (non-emptiness), and pre-check / get_mappings on the same history.  Stdlib lists. *)
From Coq Require Import List NArith Lia.
From SK Require Import lib.LGraph model.C07_Model
  proof.C07_Spec proof.C07_History proof.C07_Filters proof.C07_Main proof.C07_Relabel proof.C07_Final proof.C07_Cache proof.C07_Examples.
Import ListNotations.

Section More.
Variable vf2b : bool -> (attrs -> attrs -> bool) -> (attrs -> attrs -> bool) -> graph -> graph -> bool.
Variable enum : (attrs -> attrs -> bool) -> (attrs -> attrs -> bool) -> graph -> graph -> list mapping.
Hypothesis VB : vf2b_contract vf2b.
Hypothesis EN : enum_contract enum.

(** whether get_mappings finds the pattern does not depend on the node numbering of the host or of the pattern
    (gs' is gs with the host, resp. the pattern, renamed by r injective on its nodes; caches arbitrary but consistent) *)
Theorem maps_relabel_invariant e r gs gs' hi pi c c' : cache_inv gs c -> cache_inv gs' c' -> gwf (gnth gs hi) -> gwf (gnth gs pi) ->
  e_mm e <> Some 0%N ->
  (gnth gs' hi = grelabel r (gnth gs hi) /\ inj_on r (node_ids (gnth gs hi)) /\ gnth gs' pi = gnth gs pi) \/
  (gnth gs' pi = grelabel r (gnth gs pi) /\ inj_on r (node_ids (gnth gs pi)) /\ gnth gs' hi = gnth gs hi) ->
  (fst (get_mappings vf2b enum e hi (gnth gs' hi) pi (gnth gs' pi) c') <> [] <->
   fst (get_mappings vf2b enum e hi (gnth gs hi) pi (gnth gs pi) c) <> []).
Proof.
  intros Hc Hc' WH WP Hmm D.
  assert (W' : gwf (gnth gs' hi) /\ gwf (gnth gs' pi))
    by (destruct D as [(E1 & Ri & E2)|(E1 & Ri & E2)]; rewrite E1, E2; auto using gwf_relabel).
  rewrite (embeddings_iff vf2b enum VB EN gs e hi pi c Hc WH WP Hmm),
          (embeddings_iff vf2b enum VB EN gs' e hi pi c' Hc' (proj1 W') (proj2 W') Hmm).
  destruct D as [(-> & Ri & ->)|(-> & Ri & ->)]; [apply contained_relabel_host_iff | apply contained_relabel_pat_iff]; auto.
Qed.

(** _pre_check and get_mappings on the same arguments: a result is returned only if _pre_check passes (whatever the two cache states) *)
Theorem maps_implies_pre_check gs e hi pi c c' : cache_inv gs c -> cache_inv gs c' -> gwf (gnth gs hi) -> gwf (gnth gs pi) ->
  fst (get_mappings vf2b enum e hi (gnth gs hi) pi (gnth gs pi) c) <> [] -> fst (pre_check e hi (gnth gs hi) pi (gnth gs pi) c') = true.
Proof.
  intros Hc Hc' WH WP Hn. rewrite (pre_fst gs e hi pi c' Hc'). rewrite (maps_fst vf2b enum gs e hi pi c Hc) in Hn.
  unfold get_mappings_p in Hn. destruct (pre_check_p e (gnth gs hi) (gnth gs pi)); [reflexivity|]. simpl in Hn. congruence.
Qed.
End More.

(* example: C-O-C renamed by +10 still contains C-O *)
Definition rP10 (x : N) : N := (x + 10)%N.
Definition gsR : list graph := [gCO; gOC; gCOm; grelabel rP10 gCOC].
Example ex_maps_relabel : fst (get_mappings has_mono (monos_g true) eFull 3 (gnth gsR 3) 0 (gnth gsR 0) []) <> [].
Proof.
  apply (maps_relabel_invariant has_mono (monos_g true) has_mono_contract monos_g_contract eFull rP10 gsA gsR 3 0 [] []
           (cache_inv_nil gsA) (cache_inv_nil gsR) wf_gCOC wf_gCO); [discriminate | | ].
  - left. split; [reflexivity|]. split; [intros a b _ _ E; unfold rP10 in E; lia | reflexivity].
  - vm_compute. discriminate.
Qed.

(** total hydrogen count of a graph (absent = 0) *)
Definition sum_hc (g : graph) : N := fold_right N.add 0%N (map (fun u => hc (nlabel g u)) (node_ids g)).

Lemma sum_map_perm {X} (w : X -> N) l l' : Permutation.Permutation l l' ->
  fold_right N.add 0%N (map w l) = fold_right N.add 0%N (map w l').
Proof. induction 1; simpl; lia. Qed.

Lemma sum_le_pointwise {X} (a b : X -> N) l : (forall x, In x l -> (a x <= b x)%N) ->
  (fold_right N.add 0 (map a l) <= fold_right N.add 0 (map b l))%N.
Proof.
  induction l as [|x r IH]; simpl; intros H; [lia|].
  specialize (IH (fun y I => H y (or_intror I))). pose proof (H x (or_introl eq_refl)). lia.
Qed.

Lemma sum_le_eq {X} (a b : X -> N) l : (forall x, In x l -> (a x <= b x)%N) ->
  fold_right N.add 0%N (map a l) = fold_right N.add 0%N (map b l) -> forall x, In x l -> a x = b x.
Proof.
  induction l as [|y r IH]; simpl; intros H E x I; [destruct I|].
  pose proof (H y (or_introl eq_refl)) as Hy. pose proof (sum_le_pointwise a b r (fun z Iz => H z (or_intror Iz))) as Hs.
  destruct I as [<-|I]; [lia|]. apply IH; auto. lia.
Qed.

Section SymSum.
Variable vf2b : bool -> (attrs -> attrs -> bool) -> (attrs -> attrs -> bool) -> graph -> graph -> bool.
Hypothesis VB : vf2b_contract vf2b.

Lemma iso_flip_sum e g1 g2 : gwf g1 -> gwf g2 -> sum_hc g1 = sum_hc g2 ->
  (exists f, iso_map (nm_eng e) (em_eng e) g1 g2 f) -> exists f, iso_map (nm_eng e) (em_eng e) g2 g1 f.
Proof.
  intros W1 W2 Es (f & Hi).
  pose proof (iso_sizes _ _ _ _ _ W1 W2 Hi) as En.
  destruct Hi as (He & On). pose proof He as (E1 & E2 & E3).
  pose proof (emb_nodes_perm _ _ _ _ _ _ W1 W2 En He) as Hp.
  (* pointwise hc g2 u <= hc g1 (f u), equal totals => equal everywhere *)
  assert (Hle : forall u, In u (node_ids g2) -> (hc (nlabel g2 u) <= hc (nlabel g1 (f u)))%N).
  { intros u Iu. destruct (E1 u Iu) as (_ & Hn). apply nm_eng_spec in Hn. tauto. }
  assert (Heq : forall u, In u (node_ids g2) -> hc (nlabel g2 u) = hc (nlabel g1 (f u))).
  { apply sum_le_eq; [exact Hle|]. fold (sum_hc g2). rewrite <- Es. unfold sum_hc.
    rewrite <- (sum_map_perm (fun h => hc (nlabel g1 h)) _ _ Hp), map_map. reflexivity. }
  eexists. apply (iso_flip _ _ _ _ _ _ _ (conj He On)); [|intros b b'; apply em_eng_flip].
  intros u Iu Hn. apply (nm_eng_flip _ _ _ Hn). rewrite (Heq u Iu). apply N.le_refl.
Qed.

(** (2b, full strength) isomorphic is symmetric whenever the two graphs carry the same TOTAL hydrogen count (absent = 0) — in
    particular for a graph and any relabelled copy, for isomers, and for graphs without hcount annotations: a label-preserving
    bijection with hcount(pattern node) <= hcount(host node) everywhere and equal totals has equality everywhere, so its inverse is an
    isomorphism the other way *)
Theorem symmetric_sum gs e i j c c' : cache_inv gs c -> cache_inv gs c' -> gwf (gnth gs i) -> gwf (gnth gs j) ->
  sum_hc (gnth gs i) = sum_hc (gnth gs j) ->
  fst (isomorphic vf2b e i (gnth gs i) j (gnth gs j) c) = fst (isomorphic vf2b e j (gnth gs j) i (gnth gs i) c').
Proof.
  intros Hc Hc' Wi Wj Es. apply bool_iff.
  rewrite (iso_verdict vf2b VB gs e i j c Hc Wi Wj), (iso_verdict vf2b VB gs e j i c' Hc' Wj Wi).
  split; apply iso_flip_sum; auto.
Qed.

(** the statement for constant counts (all hydrogen counts equal to one constant k, or absent: C07_symmetric) is the special case of equal orders; for
    different orders both verdicts are False *)
Lemma hc_all_sum k g : hc_all k g -> sum_hc g = (N.of_nat (n_nodes g) * k)%N.
Proof.
  unfold hc_all, sum_hc. rewrite n_nodes_ids. induction (node_ids g) as [|u r IH]; intros H; [simpl; lia|].
  change (fold_right N.add 0%N (map (fun u0 => hc (nlabel g u0)) (u :: r))) with (hc (nlabel g u) + fold_right N.add 0%N (map (fun u0 => hc (nlabel g u0)) r))%N.
  rewrite (H u (or_introl eq_refl)), IH by (intros v Iv; apply H; right; exact Iv). simpl length. lia.
Qed.
End SymSum.

(** example: CH3-OH against a renumbered copy (hydrogen counts 3 and 1: not constant, equal totals) — symmetric; against CH2-O
    (totals 4 and 2) the two directions differ: the hypothesis is needed *)
Definition aCH3 : attrs := [(0, 3); (1, 1); (2, 3)]%N.
Definition aOH : attrs := [(0, 1); (1, 2); (2, 3)]%N.
Definition aCH2 : attrs := [(0, 2); (1, 1); (2, 3)]%N.
Definition gMeOH : graph := LG [(1, aCH3); (2, aOH)]%N [(1, 2, b1)]%N.
Definition gMeOH' : graph := LG [(8, aOH); (9, aCH3)]%N [(9, 8, b1)]%N.
Definition gCH2O : graph := LG [(4, aCH2); (5, aO)]%N [(4, 5, b1)]%N.
Definition gsH : list graph := [gMeOH; gMeOH'; gCH2O].
Lemma wf_gMeOH : gwf gMeOH. Proof. wf_small. Qed.
Lemma wf_gMeOH' : gwf gMeOH'. Proof. wf_small. Qed.
Example ex_symmetric_sum :
  fst (isomorphic has_mono eFull 0 (gnth gsH 0) 1 (gnth gsH 1) []) = fst (isomorphic has_mono eFull 1 (gnth gsH 1) 0 (gnth gsH 0) []) /\
  sum_hc (gnth gsH 0) = 4%N /\ sum_hc (gnth gsH 2) = 2%N /\
  fst (isomorphic has_mono eFull 0 (gnth gsH 0) 2 (gnth gsH 2) []) = true /\ fst (isomorphic has_mono eFull 2 (gnth gsH 2) 0 (gnth gsH 0) []) = false.
Proof.
  split; [|repeat apply conj; vm_compute; reflexivity].
  apply (symmetric_sum has_mono has_mono_contract gsH eFull 0 1 [] [] (cache_inv_nil gsH) (cache_inv_nil gsH) wf_gMeOH wf_gMeOH').
  vm_compute. reflexivity.
Qed.
