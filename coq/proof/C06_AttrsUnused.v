(** C06 — a selected name that no dictionary of the two graphs carries has no effect ([dict.get] gives
    None on both sides): selections "extended by names no node / edge has" answer like the plain ones. *)
From Coq Require Import List NArith Bool Arith Lia.
From SK Require Import lib.LGraph lib.Mono lib.Reach model.C06_Model model.C06_Attrs lib.C06_Spec lib.C06_SelSpec
  proof.C06_Attrs proof.C06_AttrsSpec proof.C06_AttrsEx.
Import ListNotations.

(** no node dictionary / no edge dictionary of [g] has the name [k] (or has it with value None) *)
Definition node_name_unused (k : N) (g : rgraph) : Prop := forall u l, label g u = Some l -> aget k (fst l) = 0%N.
Definition edge_name_unused (k : N) (g : rgraph) : Prop := forall u v d, LGraph.adj g u v = Some d -> aget k d = 0%N.

Lemma rlab_unused k g u : node_name_unused k g -> aget k (fst (rlab g u)) = 0%N.
Proof. intros Hu. unfold rlab. destruct (label g u) as [l|] eqn:E; [exact (Hu u l E)|reflexivity]. Qed.

Section Unused.
Variables (k : N) (na ea : list N) (H P : rgraph).

(** a node-attribute name that no node of either graph carries can be added to / dropped from the selection *)
Theorem sel_unused_node_name : node_name_unused k H -> node_name_unused k P -> forall c,
  find_sel (monos_sel (k :: na) ea H P) c (k :: na) ea H P = find_sel (monos_sel na ea H P) c na ea H P.
Proof.
  intros HnH HnP c. apply find_sel_ext; [|reflexivity].
  intros h p. unfold node_match_sel. cbn [forallb]. rewrite !rlab_unused by assumption. reflexivity.
Qed.

(** the same for an edge-attribute name that no edge of either graph carries *)
Theorem sel_unused_edge_name : edge_name_unused k H -> edge_name_unused k P -> forall c,
  find_sel (monos_sel na (k :: ea) H P) c na (k :: ea) H P = find_sel (monos_sel na ea H P) c na ea H P.
Proof.
  intros HeH HeP c. apply find_sel_ext; [reflexivity|].
  intros u v u' v' b b' E1 E2. unfold edge_match_sel. cbn [forallb].
  rewrite (HeP u v b E1), (HeH u' v' b' E2). reflexivity.
Qed.
End Unused.

(** non-vacuity: name 9 occurs nowhere in the graphs of proof/C06_AttrsEx.v *)
Example ex_unused :
  find_sel (monos_sel [9; 1; 2]%N [9]%N Hr Pr) (Cfg 1 0 5000 false true) [9; 1; 2]%N [9]%N Hr Pr = [[(11, 3); (10, 2)]%N] /\
  node_name_unused 9 Hr /\ edge_name_unused 9 Pr /\ ~ node_name_unused 5 Hr.
Proof.
  split; [vm_compute; reflexivity|split; [|split]].
  - intros u l. unfold label. simpl.
    repeat (destruct (N.eqb u _); [intros E; inversion E; reflexivity|]). discriminate.
  - intros u v d. unfold LGraph.adj, Pr, gedges, find_edge.
    match goal with |- (if ?c then _ else _) = _ -> _ => destruct c end; [intros E; inversion E; reflexivity|discriminate].
  - intros Hn. specialize (Hn 3%N _ eq_refl). vm_compute in Hn. discriminate.
Qed.
