(** C08 — equivariance of the nauty search of the model: if [h] is, on the covered attributes, the graph [g]
    renumbered by an injective [pi] (any insertion order, edge orientation, atom maps), then every ingredient of the
    search is related ([attr_rel], [sigN_rel], [init_rel], [nlabel_rel]), the leaf enumerations correspond up to
    order (IRCore / C08_IR [leaves2_rel]) and the minimal label is the same ([nauty_label_rel]). *)
From Coq Require Import List NArith ZArith Bool Arith Lia Permutation.
From SK Require Import lib.LGraph lib.IRSortKeys lib.IRCore lib.IRSearch lib.StrJoin.
From SK Require Import model.C08_Model proof.C08_Spec proof.C08_Sort proof.C08_Faithful proof.C08_Cov proof.C08_SigFun
                       proof.C08_Render proof.C08_IR proof.C08_Nauty.
From SK Require lib.IRInst.
Import ListNotations.

(* ---------------- lookups through the covered view ---------------- *)
Lemma assoc_map_snd {V W} (f : V -> W) k (l : list (N * V)) :
  assoc k (map (fun p => (fst p, f (snd p))) l) = option_map f (assoc k l).
Proof. induction l as [|[k' v] l IH]; simpl; auto. destruct (N.eqb k k'); auto. Qed.
Lemma assoc_none {V} k (l : list (N * V)) : assoc k l = None <-> ~ In k (map fst l).
Proof.
  induction l as [|[k' v] l IH]; simpl; [tauto|].
  destruct (N.eqb_spec k k') as [->|Hne]; [split; [discriminate|intros H; exfalso; apply H; auto]|].
  rewrite IH. split; intros H; [intros [E|I]; [congruence|auto]|intro I; apply H; auto].
Qed.
Lemma assoc_perm {V} k (l l' : list (N * V)) : NoDup (map fst l) -> Permutation l l' -> assoc k l = assoc k l'.
Proof.
  intros Hnd Hp. destruct (assoc k l) as [v|] eqn:E.
  - symmetry. apply assoc_nodup_in.
    + eapply Permutation_NoDup; [apply Permutation_map; exact Hp|exact Hnd].
    + apply (Permutation_in _ Hp). apply assoc_in. exact E.
  - symmetry. apply assoc_none. apply assoc_none in E. intro I. apply E.
    apply (Permutation_in _ (Permutation_sym (Permutation_map fst Hp))). exact I.
Qed.

Definition dflt : nattr := NA [] false 0 0 None.
Lemma ncov_attr_cov (g : graph) v :
  ncov (attr_of g v) = match assoc v (cov_nodes g) with Some c => c | None => ncov dflt end.
Proof.
  unfold attr_of, label, cov_nodes, covn. rewrite (assoc_map_snd ncov). destruct (assoc v (gnodes g)); reflexivity.
Qed.
Lemma ncov_attr_geq_cov g h v : NoDup (node_ids g) -> geq_cov g h -> ncov (attr_of g v) = ncov (attr_of h v).
Proof.
  intros Hnd [H _]. rewrite !ncov_attr_cov. rewrite (assoc_perm v (cov_nodes g) (cov_nodes h)); auto.
  rewrite <- node_ids_cov. exact Hnd.
Qed.

(* adjacency through the covered edge list *)
Definition ckey (u v : N) (c : N * N * ecv) : bool :=
  N.eqb (fst (fst c)) (N.min u v) && N.eqb (snd (fst c)) (N.max u v).
Definition clook (u v : N) (l : list (N * N * ecv)) : option ecv :=
  option_map snd (find (ckey u v) l).
Lemma ckey_cove u v a b x :
  ckey u v (cove (a, b, x)) = (N.eqb a u && N.eqb b v) || (N.eqb a v && N.eqb b u).
Proof.
  apply eq_true_iff_eq. unfold ckey, cove. cbn [fst snd].
  rewrite orb_true_iff, !andb_true_iff, !N.eqb_eq. apply minmax_pair_iff.
Qed.
Lemma adj_cov (g : graph) u v : option_map ecov (adj g u v) = clook u v (cov_edges g).
Proof.
  unfold adj, clook, cov_edges. induction (gedges g) as [|[[a b] x] l IH]; [reflexivity|].
  cbn [map find find_edge]. rewrite ckey_cove.
  destruct ((N.eqb a u && N.eqb b v) || (N.eqb a v && N.eqb b u)); [reflexivity|exact IH].
Qed.
(* a lookup by a test that singles out one key does not depend on the order of a list with distinct keys *)
Lemma find_perm {A K} (key : A -> bool) (kf : A -> K) l l' : NoDup (map kf l) -> Permutation l l' ->
  (forall c d, key c = true -> key d = true -> kf c = kf d) -> find key l = find key l'.
Proof.
  intros Hnd Hp K0.
  assert (Hnd' : NoDup (map kf l')) by (eapply Permutation_NoDup; [apply Permutation_map; exact Hp|exact Hnd]).
  destruct (find key l) as [c|] eqn:E.
  - apply find_some in E. destruct E as [I Hk].
    destruct (find key l') as [d|] eqn:E'.
    + apply find_some in E'. destruct E' as [I' Hk']. f_equal.
      apply (NoDup_map_key_inj kf l' Hnd'); auto. apply (Permutation_in _ Hp). exact I.
    + exfalso. pose proof (find_none _ _ E' c (Permutation_in _ Hp I)) as H. congruence.
  - destruct (find key l') as [d|] eqn:E'; auto.
    apply find_some in E'. destruct E' as [I' Hk']. exfalso.
    pose proof (find_none _ _ E d (Permutation_in _ (Permutation_sym Hp) I')) as H. congruence.
Qed.
Lemma clook_perm u v l l' : NoDup (map fst l) -> Permutation l l' -> clook u v l = clook u v l'.
Proof.
  intros Hnd Hp. unfold clook. f_equal. apply (find_perm (ckey u v) fst); auto.
  intros [[a b] x] [[a' b'] y]. unfold ckey. cbn [fst snd]. rewrite !andb_true_iff, !N.eqb_eq. intros [-> ->] [-> ->]. reflexivity.
Qed.
Lemma adj_geq_cov g h u v : simple g -> geq_cov g h -> option_map ecov (adj g u v) = option_map ecov (adj h u v).
Proof. intros [_ Hs] [_ H]. rewrite !adj_cov. apply clook_perm; auto. Qed.

(* ---------------- what every variant of the search shares ---------------- *)
Lemma init_cells_rel (pi : N -> N) (cg ch : N -> list Z) (g h : graph) :
  (forall v, ch (pi v) = cg v) -> Permutation (map pi (node_ids g)) (node_ids h) ->
  partR pi (split_cell lexleb (fun _ v => cg v) [] (sorted_ids g)) (split_cell lexleb (fun _ v => ch v) [] (sorted_ids h)).
Proof.
  intros Hc Hi.
  apply (@split_rel (list Z) lexleb IRInst.lexleb_total IRInst.lexleb_trans IRInst.lexleb_antisym pi
           (fun _ v => cg v) (fun _ v => ch v)).
  - intros _ _ v _. apply Hc.
  - constructor.
  - unfold cellR. eapply perm_trans; [apply Permutation_map; apply sorted_ids_perm|].
    eapply perm_trans; [exact Hi|]. apply Permutation_sym, sorted_ids_perm.
Qed.
Lemma min_label_rel (pi : N -> N) (lg lh : list N -> str) (Lg Lh : list (list N)) :
  Permutation (map (map pi) Lg) Lh -> (forall p, lh (map pi p) = lg p) ->
  fold_left (minl strleb) (map lh Lh) None = fold_left (minl strleb) (map lg Lg) None.
Proof.
  intros HL Hl. apply (fold_minl_perm strleb strleb_total strleb_trans strleb_antisym).
  eapply perm_trans; [apply Permutation_map; apply Permutation_sym; exact HL|].
  rewrite map_map. rewrite (map_ext (fun x => lh (map pi x)) lg) by exact Hl. apply Permutation_refl.
Qed.

(* ---------------- literal relabelling by an injective map ---------------- *)
Section Rel.
Variable pi : N -> N.
Hypothesis pi_inj : forall x y, pi x = pi y -> x = y.

Lemma eqb_pi x y : N.eqb (pi x) (pi y) = N.eqb x y.
Proof.
  destruct (N.eqb_spec x y) as [->|H]; [apply N.eqb_refl|].
  apply N.eqb_neq. intro E. apply H. apply pi_inj. exact E.
Qed.
Lemma attr_relabel (g : graph) v : attr_of (relabel pi g) (pi v) = attr_of g v.
Proof.
  unfold attr_of, label, relabel. cbn [gnodes]. induction (gnodes g) as [|[n a] l IH]; simpl; auto.
  rewrite eqb_pi. destruct (N.eqb v n); auto.
Qed.
Lemma adj_relabel (g : graph) u v : adj (relabel pi g) (pi u) (pi v) = adj g u v.
Proof.
  unfold adj, relabel. cbn [gedges]. induction (gedges g) as [|[[a b] x] l IH]; simpl; auto.
  rewrite !eqb_pi, IH. reflexivity.
Qed.
Lemma inc_relabel (g : graph) v : inc (relabel pi g) (pi v) = map (fun p => (pi (fst p), snd p)) (inc g v).
Proof.
  rewrite !inc_flat. unfold relabel. cbn [gedges]. induction (gedges g) as [|[[a b] x] l IH]; simpl; auto.
  rewrite map_app, <- IH. f_equal. rewrite !eqb_pi. destruct (N.eqb a v), (N.eqb b v); reflexivity.
Qed.

Variables g h : graph.
Hypothesis Hg : wf g.
Hypothesis Hq : geq_cov (relabel pi g) h.

Lemma pi_inj_on : C08_Spec.inj_on pi (node_ids g).
Proof. intros x y _ _. apply pi_inj. Qed.
Lemma simple_pig : simple (relabel pi g).
Proof. apply simple_relabel; [exact Hg|apply pi_inj_on]. Qed.

Lemma attr_rel v : ncov (attr_of h (pi v)) = ncov (attr_of g v).
Proof. rewrite <- (ncov_attr_geq_cov _ _ _ (proj1 simple_pig) Hq). rewrite attr_relabel. reflexivity. Qed.
Lemma adj_rel u v : option_map ecov (adj h (pi u) (pi v)) = option_map ecov (adj g u v).
Proof. rewrite <- (adj_geq_cov _ _ _ _ simple_pig Hq). rewrite adj_relabel. reflexivity. Qed.
Lemma inc_rel v : Permutation (map ce (inc h (pi v))) (map (fun p => (pi (fst p), snd p)) (map ce (inc g v))).
Proof.
  eapply perm_trans; [apply Permutation_sym, (inc_geq_cov _ _ (pi v) Hq)|].
  rewrite inc_relabel, !map_map. apply Permutation_refl.
Qed.

(* codes are functions of the covered values *)
Definition AC (c : list N * Z * bool * Z) : list Z := let '(e, c0, a, h0) := c in enc_str e ++ [b2z a; c0; h0].
Lemma acode_cov (k : graph) v : acode k v = AC (ncov (attr_of k v)).
Proof. unfold acode, AC, ncov. destruct (attr_of k v). reflexivity. Qed.
Lemma acode_rel v : acode h (pi v) = acode g v.
Proof. rewrite !acode_cov, attr_rel. reflexivity. Qed.
Lemma node_str_rel v : node_str h (pi v) = node_str g v.
Proof. rewrite !node_str_cov, attr_rel. reflexivity. Qed.
Lemma edge_bit_rel ab : edge_bit h (pi (fst ab), pi (snd ab)) = edge_bit g ab.
Proof. rewrite !edge_bit_cov. cbn [fst snd]. rewrite adj_rel. reflexivity. Qed.

Lemma degree_rel v : degree h (pi v) = degree g v.
Proof.
  unfold degree. f_equal. pose proof (Permutation_length (inc_rel v)) as E. rewrite !map_length in E. exact E.
Qed.

Definition EC (x : ecv) : list Z :=
  let '(o, t, s) := x in
  match t with
  | None => [o; (match s with Some _ => 1 | None => 0 end)%Z; sd0 s]
  | Some b => [Z.min o b; Z.max o b; (match s with Some _ => 1 | None => 0 end)%Z; sd0 s]
  end.
Lemma ecode_cov a : ecode a = EC (ecov a).
Proof. destruct a as [o [s|] [t|]]; reflexivity. Qed.

Lemma cnt_perm c ns ns' : Permutation ns ns' -> IRInst.cnt c ns = IRInst.cnt c ns'.
Proof. intros H. unfold IRInst.cnt. f_equal. apply Permutation_length. apply Permutation_filter. exact H. Qed.

Lemma nbrs_rel v : Permutation (map fst (inc h (pi v))) (map pi (map fst (inc g v))).
Proof.
  pose proof (Permutation_map fst (inc_rel v)) as H. rewrite !map_map in H. cbn [fst ce] in H.
  rewrite map_map. exact H.
Qed.
Lemma ecodes_rel v : Permutation (map (fun p => ecode (snd p)) (inc h (pi v))) (map (fun p => ecode (snd p)) (inc g v)).
Proof.
  pose proof (Permutation_map (fun p : N * ecv => EC (snd p)) (inc_rel v)) as H. rewrite !map_map in H. cbn [snd ce] in H.
  rewrite (map_ext (fun p => ecode (snd p)) (fun p => EC (ecov (snd p)))) by (intros; apply ecode_cov).
  exact H.
Qed.

Theorem sigN_rel P P' v : partR pi P P' -> sigN h P' (pi v) = sigN g P v.
Proof.
  intros HP. unfold sigN. rewrite acode_rel, degree_rel. f_equal. f_equal. f_equal.
  - induction HP as [|c c' P P' Hc HP IH]; simpl; auto. f_equal; auto.
    rewrite (cnt_perm c' _ _ (nbrs_rel v)). apply IRInst.cnt_rel; auto.
  - f_equal. apply sort_by_perm_eq; [apply ecodes_rel|]. intros x y _ _ E. exact E.
Qed.

(* ---------------- initial partition ---------------- *)
Lemma ids_rel : Permutation (map pi (node_ids g)) (node_ids h).
Proof. rewrite <- node_ids_relabel. apply geq_cov_ids. exact Hq. Qed.
Lemma nnodes_rel : length (gnodes h) = length (gnodes g).
Proof. rewrite <- (geq_cov_length _ _ Hq). unfold relabel. cbn [gnodes]. apply map_length. Qed.

Theorem init_rel : partR pi (init_partition g) (init_partition h).
Proof.
  unfold init_partition. pose proof nnodes_rel as Hl.
  destruct (gnodes g) as [|p l] eqn:Eg, (gnodes h) as [|p' l'] eqn:Eh; try discriminate; [constructor|].
  apply init_cells_rel; [apply acode_rel|apply ids_rel].
Qed.

(* ---------------- labels ---------------- *)
Lemma pairs_map (p : list N) : pairs (map pi p) = map (fun ab => (pi (fst ab), pi (snd ab))) (pairs p).
Proof.
  induction p as [|x p IH]; simpl; auto. rewrite map_app, IH, !map_map. reflexivity.
Qed.
Theorem nlabel_rel p : nlabel h (map pi p) = nlabel g p.
Proof.
  unfold nlabel, node_seg. rewrite pairs_map, !map_map.
  rewrite (map_ext (fun x => node_str h (pi x)) (node_str g)) by apply node_str_rel.
  rewrite (map_ext (fun x => edge_bit h (pi (fst x), pi (snd x))) (edge_bit g)) by apply edge_bit_rel.
  reflexivity.
Qed.

(* ---------------- leaves and the minimal label ---------------- *)
Lemma fuel_rel : rfuel h = rfuel g /\ sfuel h = sfuel g.
Proof. unfold rfuel, sfuel. rewrite nnodes_rel. auto. Qed.

Theorem leaves_rel : Permutation (map (map pi) (leaves2 _ lexleb (sigN g) (rfuel g) (children g) (sfuel g) (init_partition g) []))
                                 (leaves2 _ lexleb (sigN h) (rfuel h) (children h) (sfuel h) (init_partition h) []).
Proof.
  destruct fuel_rel as [-> ->].
  apply (leaves2_rel _ lexleb IRInst.lexleb_total IRInst.lexleb_trans IRInst.lexleb_antisym pi pi_inj (sigN g) (sigN h)
           sigN_rel (children g) (children h) (children_perm g) (children_perm h) (rfuel g) (sfuel g)
           (init_partition g) (init_partition h) [] init_rel).
Qed.

Lemma nauty_label_fold (k : graph) :
  nauty_label k = fold_left (minl strleb) (map (nlabel k) (leaves2 _ lexleb (sigN k) (rfuel k) (children k) (sfuel k) (init_partition k) [])) None.
Proof.
  unfold nauty_label, nauty_acc. rewrite nsearch_is_fold.
  exact (best_label_fold strleb (nlabel k) _ (None, [])).
Qed.

Theorem nauty_label_rel : nauty_label h = nauty_label g.
Proof.
  rewrite !nauty_label_fold. apply (min_label_rel pi); [apply leaves_rel|apply nlabel_rel].
Qed.
End Rel.

Print Assumptions nauty_label_rel.
