(** C11 — de-duplication: both de-duplicators return a subsequence of their input
    (clause 3), and pruning by rule automorphisms keeps a representative of every
    class of matches (clause 4). Stdlib lists. *)
From Coq Require Import List NArith Arith Bool Lia.
From SK Require Import lib.LGraph model.C11_Model proof.C11_Aut.
Import ListNotations.

(** [subseq out inp]: [out] is obtained from [inp] by deleting elements (original order kept) *)
Inductive subseq {X : Type} : list X -> list X -> Prop :=
| sub_nil : subseq [] []
| sub_skip x l l' : subseq l l' -> subseq l (x :: l')
| sub_keep x l l' : subseq l l' -> subseq (x :: l) (x :: l').

Lemma subseq_refl {X} (l : list X) : subseq l l.
Proof. induction l; [constructor | apply sub_keep; auto]. Qed.

Lemma subseq_in {X} (a b : list X) x : subseq a b -> In x a -> In x b.
Proof. induction 1; simpl; intuition. Qed.

Lemma subseq_map {X Y} (f : X -> Y) (a b : list X) : subseq a b -> subseq (map f a) (map f b).
Proof. induction 1; simpl; [apply sub_nil | apply sub_skip | apply sub_keep]; auto. Qed.

Lemma subseq_length {X} (a b : list X) : subseq a b -> (length a <= length b)%nat.
Proof. induction 1; simpl; lia. Qed.

(** [x] comes before every member of [xs] it is related to: both de-duplicators keep exactly such elements *)
Definition first_among {X} (R : X -> X -> Prop) (xs : list X) (x : X) : Prop :=
  forall l1 l2, xs = l1 ++ x :: l2 -> forall z, In z l1 -> ~ R x z.

Lemma first_among_tail {X} (R : X -> X -> Prop) h r x :
  In x r -> first_among R (h :: r) x -> first_among R r x /\ ~ R x h.
Proof.
  intros Hx Hf. split.
  - intros l1 l2 E z Hz. apply (Hf (h :: l1) l2); [rewrite E; reflexivity | right; exact Hz].
  - destruct (in_split _ _ Hx) as (l1 & l2 & E). apply (Hf (h :: l1) l2); [rewrite E; reflexivity | left; reflexivity].
Qed.

Lemma first_among_cons {X} (R : X -> X -> Prop) h r x : ~ In h r ->
  (In x (h :: r) /\ first_among R (h :: r) x <-> x = h \/ In x r /\ first_among R r x /\ ~ R x h).
Proof.
  intros Hh. split.
  - intros [[<-|Hx] Hf]; [left; reflexivity | right]. split; [exact Hx | exact (first_among_tail R h r x Hx Hf)].
  - intros [->|(Hx & Hf & Hn)].
    + split; [left; reflexivity|]. intros [|a l1] l2 E z Hz; [destruct Hz|].
      injection E as -> E. exfalso. apply Hh. rewrite E. apply in_elt.
    + split; [right; exact Hx|]. intros [|a l1] l2 E z Hz; injection E as -> E.
      * exfalso. exact (Hh Hx).
      * destruct Hz as [<-|Hz]; [exact Hn | exact (Hf l1 l2 E z Hz)].
Qed.

Section Sub.
Variable X : Type.
Variable key : X -> mapping.

Lemma dedup_aut_go_subseq A xs : forall seen, subseq (dedup_aut_go key A xs seen) xs.
Proof.
  induction xs as [|x r IH]; intros seen; simpl; [constructor|].
  destruct (existsb (set_eqb (key x)) seen); [apply sub_skip | apply sub_keep]; apply IH.
Qed.

Lemma dedup_aut_subseq A xs : subseq (dedup_aut key A xs) xs.
Proof. apply dedup_aut_go_subseq. Qed.

Lemma dedup_sig_go_subseq sg xs : forall seen out, dedup_sig_go key sg xs seen = Some out -> subseq out xs.
Proof.
  induction xs as [|x r IH]; intros seen out; simpl.
  - intros [= <-]. constructor.
  - destruct (sg (key x)) as [s|]; [|discriminate].
    destruct (existsb (sig_eqb s) seen).
    + intros H. apply sub_skip. eapply IH; eauto.
    + destruct (dedup_sig_go key sg r (s :: seen)) as [o|] eqn:E; [|discriminate].
      intros [= <-]. apply sub_keep. eapply IH; eauto.
Qed.

Lemma dedup_anchor_subseq xs porbs anchor horbs out :
  dedup_anchor key xs porbs anchor horbs = Some out -> subseq out xs.
Proof.
  unfold dedup_anchor. destruct porbs as [po|], horbs as [ho|];
    try (destruct (prepare _ anchor) as [free anchored]; apply dedup_sig_go_subseq).
  intros [= <-]. apply subseq_refl.
Qed.

Lemma prune_subseq rc raw : subseq (prune key rc raw) raw.
Proof.
  unfold prune. destruct (1 <? length raw)%nat; [apply dedup_aut_subseq | apply subseq_refl].
Qed.
End Sub.

Lemma dedup_sublist_all (X : Type) (key : X -> mapping) (xs : list X) :
    (forall porbs anchor horbs out, dedup_anchor key xs porbs anchor horbs = Some out -> subseq out xs) /\
    (forall A, subseq (dedup_aut key A xs) xs) /\
    (forall rc, subseq (prune key rc xs) xs).
Proof.
  split; [|split].
  - intros. eapply dedup_anchor_subseq; eauto.
  - intros. apply dedup_aut_subseq.
  - intros. apply prune_subseq.
Qed.

(** ---------- clause 5: pruning keeps a representative of every class of matches ---------- *)
Lemma pair_eqb_eq a b : pair_eqb a b = true <-> a = b.
Proof. exact (prod_eqb_eq N.eqb N.eqb N.eqb_eq N.eqb_eq a b). Qed.

Lemma lpeqb_eq a b : lpeqb a b = true <-> a = b.
Proof. exact (list_eqb_eq (N * N) pair_eqb pair_eqb_eq a b). Qed.

Lemma pair_mem_spec x l : pair_mem x l = true <-> In x l.
Proof.
  unfold pair_mem. rewrite existsb_exists. split.
  - intros (y & Hy & E). apply pair_eqb_eq in E. subst. exact Hy.
  - intros H. exists x. split; [exact H | apply pair_eqb_eq; reflexivity].
Qed.

Lemma incl2b_spec {Y} (inb : Y -> list Y -> bool) (a b : list Y) : (forall x l, inb x l = true <-> In x l) ->
  (forallb (fun x => inb x b) a && forallb (fun x => inb x a) b = true <-> (forall x, In x a <-> In x b)).
Proof.
  intros Hin. rewrite andb_true_iff, !forallb_forall. split.
  - intros [H1 H2] x. split; intros H; [apply Hin, H1, H | apply Hin, H2, H].
  - intros H. split; intros x Hx; apply Hin, H, Hx.
Qed.

Lemma set_eqb_spec a b : set_eqb a b = true <-> (forall x, In x a <-> In x b).
Proof. exact (incl2b_spec pair_mem a b pair_mem_spec). Qed.

(** the image of a pattern node under an automorphism given as a list of pairs (sigma[p]) *)
Definition app_map (s : mapping) (p : N) : N := match assoc p s with Some q => q | None => p end.

Lemma in_act s m p h : In (p, h) (act s m) <-> exists p', In (p', h) m /\ p = app_map s p'.
Proof.
  unfold act, app_map. rewrite in_map_iff. split.
  - intros ([p' h'] & E & Hin). simpl in E. inversion E; subst. exists p'. split; auto.
  - intros (p' & Hin & ->). exists (p', h). split; auto.
Qed.

Section Complete.
Variable X : Type.
Variable key : X -> mapping.
Variable A : list mapping.

(** [y] stands for [x]: the same element, the same set of (pattern node, host node) items, or the items of [x]
    are those of [y] with the pattern side moved by one of the automorphisms *)
Definition covers (y x : X) : Prop :=
  y = x \/ set_eqb (key x) (key y) = true \/ exists s, In s A /\ set_eqb (key x) (act s (key y)) = true.

Lemma dedup_aut_go_complete xs : forall seen x, In x xs ->
  existsb (set_eqb (key x)) seen = true \/ exists y, In y (dedup_aut_go key A xs seen) /\ covers y x.
Proof.
  induction xs as [|h r IH]; intros seen x Hin; [destruct Hin|].
  simpl. destruct Hin as [->|Hin].
  - destruct (existsb (set_eqb (key x)) seen) eqn:E; [left; reflexivity|].
    right. exists x. split; [left; reflexivity | left; reflexivity].
  - destruct (existsb (set_eqb (key h)) seen) eqn:E.
    + apply IH; exact Hin.
    + destruct (IH (key h :: map (fun s => act s (key h)) A ++ seen) x Hin) as [Hs | (y & Hy & Hc)].
      * simpl in Hs. apply orb_true_iff in Hs. destruct Hs as [Hs|Hs].
        { right. exists h. split; [left; reflexivity|]. right; left; exact Hs. }
        rewrite existsb_app in Hs. apply orb_true_iff in Hs. destruct Hs as [Hs|Hs]; [|left; exact Hs].
        apply existsb_exists in Hs. destruct Hs as (m & Hm & Heq).
        apply in_map_iff in Hm. destruct Hm as (s & <- & Hs).
        right. exists h. split; [left; reflexivity|]. right; right. exists s. split; assumption.
      * right. exists y. split; [right; exact Hy | exact Hc].
Qed.

Lemma dedup_aut_complete xs x : In x xs -> exists y, In y (dedup_aut key A xs) /\ covers y x.
Proof.
  intros Hin. destruct (dedup_aut_go_complete xs [] x Hin) as [H|H]; [discriminate | exact H].
Qed.
End Complete.

Lemma prune_covers (X : Type) (key : X -> mapping) (rc : graph) (raw : list X) x :
  In x raw -> exists y, In y (prune key rc raw) /\ covers X key (rule_auts rc) y x.
Proof.
  intros Hin. unfold prune. destruct (1 <? length raw)%nat; [apply dedup_aut_complete; exact Hin|].
  exists x. split; [exact Hin | left; reflexivity].
Qed.

Lemma prune_complete_all (X : Type) (key : X -> mapping) (rc : graph) (raw : list X) x :
  In x raw ->
  exists y, In y (prune key rc raw) /\
    (y = x \/ (forall ph, In ph (key x) <-> In ph (key y)) \/
     exists s, In s (rule_auts rc) /\
       forall p h, In (p, h) (key x) <-> exists p', In (p', h) (key y) /\ p = app_map s p').
Proof.
  intros Hin. destruct (prune_covers X key rc raw x Hin) as (y & Hy & [E | [E | (s & Hs & E)]]); exists y; (split; [exact Hy|]).
  - left. exact E.
  - right; left. apply set_eqb_spec; exact E.
  - right; right. exists s. split; [exact Hs|].
    intros p h. rewrite <- in_act. apply (proj1 (set_eqb_spec _ _) E (p, h)).
Qed.

(** consequence: any result function that does not depend on the item order of a match and is invariant under
    the rule automorphisms takes the same set of values on the kept matches as on all raw matches *)
Lemma prune_same_results (X R : Type) (key : X -> mapping) (rc : graph) (raw : list X) (res : mapping -> R) :
  (forall m m', (forall ph, In ph m <-> In ph m') -> res m = res m') ->
  (forall s x, In s (rule_auts rc) -> In x raw -> res (act s (key x)) = res (key x)) ->
  forall r, In r (map (fun x => res (key x)) raw) <-> In r (map (fun x => res (key x)) (prune key rc raw)).
Proof.
  intros Hext Hinv r. rewrite !in_map_iff. split.
  - intros (x & <- & Hin).
    destruct (prune_complete_all X key rc raw x Hin) as (y & Hy & [E | [E | (s & Hs & E)]]).
    + exists y. subst. auto.
    + exists y. split; auto. apply Hext. intros ph. symmetry. apply E.
    + exists y. split; auto.
      rewrite <- (Hinv s y Hs (subseq_in _ _ _ (prune_subseq X key rc raw) Hy)).
      apply Hext. intros [p h]. rewrite in_act. symmetry. apply E.
  - intros (y & <- & Hy). exists y. split; auto. exact (subseq_in _ _ _ (prune_subseq X key rc raw) Hy).
Qed.

(** non-vacuity: a list on which something is dropped and something is kept *)
Example dedup_aut_drops :
  dedup_aut (fun m => m) [[(1, 2); (2, 1)]]%N [[(1, 7); (2, 8)]; [(1, 8); (2, 7)]; [(1, 7); (2, 9)]]%N
  = [[(1, 7); (2, 8)]; [(1, 7); (2, 9)]]%N.
Proof. vm_compute. reflexivity. Qed.

(** the computed form of the completeness statement ([rep_ok], evaluated by the correspondence) is always true *)
Lemma set_eqb_refl a : set_eqb a a = true.
Proof. apply set_eqb_spec. intros x. tauto. Qed.

Lemma rep_ok_true (rc : graph) (raw : list mapping) : rep_ok rc raw = true.
Proof.
  unfold rep_ok. apply forallb_forall. intros x Hx. apply existsb_exists.
  destruct (prune_covers mapping (fun m => m) rc raw x Hx) as (y & Hy & [E | [E | (s & Hs & E)]]); exists y; (split; [exact Hy|]).
  - subst y. rewrite set_eqb_refl. reflexivity.
  - rewrite E. reflexivity.
  - apply orb_true_iff. right. apply existsb_exists. exists s. split; assumption.
Qed.
