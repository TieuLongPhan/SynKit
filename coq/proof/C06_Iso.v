(** C06 — invariance under renaming of node ids and re-ordering of the node / edge lists: the set of
    label-preserving monomorphisms (and of the separating ones) of a pair (H, P) corresponds, through the
    renamings, to that of every isomorphic presentation (H', P').  This is what justifies checking ONE
    presentation per isomorphism class in the exhaustive populations. *)
From Coq Require Import List NArith Bool Arith Lia Permutation SetoidList Relations.
From SK Require Import lib.LGraph lib.Mono lib.Reach model.C06_Model lib.C06_Spec proof.C06_All proof.C06_Comps proof.C06_Main.
Import ListNotations.

(** [G'] is [G] with node ids renamed by [f] (inverse [f'] on the ids of [G']); node / edge list order is free *)
Record presents (f f' : N -> N) (G G' : graph) : Prop := {
  pr_in : forall u, In u (node_ids G) -> In (f u) (node_ids G');
  pr_in' : forall u', In u' (node_ids G') -> In (f' u') (node_ids G);
  pr_inv : forall u, In u (node_ids G) -> f' (f u) = u;
  pr_inv' : forall u', In u' (node_ids G') -> f (f' u') = u';
  pr_lab : forall u, In u (node_ids G) -> lab G' (f u) = lab G u;
  pr_adj : forall u v, In u (node_ids G) -> In v (node_ids G) -> LGraph.adj G' (f u) (f v) = LGraph.adj G u v }.

Lemma presents_sym f f' G G' : presents f f' G G' -> presents f' f G' G.
Proof.
  intros [A B C D E F]. constructor; auto.
  - intros u' Hu'. rewrite <- (E (f' u') (B u' Hu')), (D u' Hu'). reflexivity.
  - intros u' v' Hu' Hv'. rewrite <- (F (f' u') (f' v') (B u' Hu') (B v' Hv')), (D u' Hu'), (D v' Hv'). reflexivity.
Qed.

Definition rename (g f : N -> N) (m : mapping) : mapping := map (fun ph => (g (fst ph), f (snd ph))) m.

Lemma in_rename g f m p' h' : In (p', h') (rename g f m) <-> exists p h, In (p, h) m /\ p' = g p /\ h' = f h.
Proof.
  unfold rename. rewrite in_map_iff. split.
  - intros ([p h] & E & Hin). inversion E; subst. exists p, h. auto.
  - intros (p & h & Hin & -> & ->). exists (p, h). auto.
Qed.

Lemma NoDup_map_inj_on {X Y} (f : X -> Y) l :
  (forall a b, In a l -> In b l -> f a = f b -> a = b) -> NoDup l -> NoDup (map f l).
Proof.
  intros Hinj Hnd. induction Hnd as [|x l Hx Hnd IH]; simpl; constructor.
  - rewrite in_map_iff. intros (y & E & Hy). apply Hx.
    rewrite (Hinj x y (or_introl eq_refl) (or_intror Hy) (eq_sym E)). exact Hy.
  - apply IH. intros a b Ha Hb. apply Hinj; right; assumption.
Qed.

Lemma is_mono_presents f f' g g' (H H' P P' : graph) m :
  presents f f' H H' -> presents g g' P P' -> is_mono H P m -> is_mono H' P' (rename g f m).
Proof.
  intros [HHi _ HHv _ HHl HHa] [PPi PPi' PPv PPv' PPl PPa] (A & B & C & D & E).
  assert (Hp : forall p h, In (p, h) m -> In p (node_ids P)).
  { intros p h Hin. apply B. change p with (fst (p, h)). apply in_map. exact Hin. }
  assert (Hh : forall p h, In (p, h) m -> In h (node_ids H)) by (intros p h Hin; exact (proj1 (D p h Hin))).
  unfold is_mono, is_mono_on. split; [|split; [|split; [|split]]].
  - unfold rename. rewrite map_map. simpl. rewrite <- (map_map fst g).
    apply NoDup_map_inj_on; [|exact A].
    intros a b Ha Hb Eab. apply B in Ha. apply B in Hb.
    rewrite <- (PPv a Ha), <- (PPv b Hb), Eab. reflexivity.
  - intros p'. unfold rename. rewrite map_map. simpl. rewrite <- (map_map fst g). rewrite in_map_iff. split.
    + intros (p & <- & Hin). apply PPi. apply B. exact Hin.
    + intros Hin. exists (g' p'). split; [apply PPv'; exact Hin|].
      apply B. apply PPi'. exact Hin.
  - unfold rename. rewrite map_map. simpl. rewrite <- (map_map snd f).
    apply NoDup_map_inj_on; [|exact C].
    intros a b Ha Hb Eab. apply in_map_iff in Ha. apply in_map_iff in Hb.
    destruct Ha as ([pa ha] & <- & Ia), Hb as ([pb hb] & <- & Ib). simpl in *.
    rewrite <- (HHv ha (Hh _ _ Ia)), <- (HHv hb (Hh _ _ Ib)), Eab. reflexivity.
  - intros p' h' Hin. apply in_rename in Hin. destruct Hin as (p & h & Hin & -> & ->).
    destruct (D p h Hin) as [Dh Dn]. split; [apply HHi; exact Dh|].
    rewrite (HHl h Dh), (PPl p (Hp _ _ Hin)). exact Dn.
  - intros p1' h1' p2' h2' b I1 I2 Hadj.
    apply in_rename in I1. apply in_rename in I2.
    destruct I1 as (p1 & h1 & I1 & -> & ->), I2 as (p2 & h2 & I2 & -> & ->).
    rewrite (PPa p1 p2 (Hp _ _ I1) (Hp _ _ I2)) in Hadj.
    destruct (E p1 h1 p2 h2 b I1 I2 Hadj) as (b' & Hb' & Hem). exists b'. split; [|exact Hem].
    rewrite (HHa h1 h2 (Hh _ _ I1) (Hh _ _ I2)). exact Hb'.
Qed.

(** connectivity is preserved (both graphs well-formed) *)
Lemma gconn_presents f f' (G G' : graph) : gwf G -> presents f f' G G' ->
  forall x y, In x (node_ids G) -> gconn G x y -> gconn G' (f x) (f y).
Proof.
  intros WG PG x y Hx Hc. unfold gconn in *.
  apply clos_rt_rt1n in Hc. induction Hc as [x|x z y Hxz Hzy IH].
  - apply rt_refl.
  - destruct (adjacent_nodes G x z WG Hxz) as [_ Hz].
    apply rt_trans with (f z); [|exact (IH Hz)].
    apply rt_step. unfold adjacent in *. rewrite (pr_adj _ _ _ _ PG x z Hx Hz). exact Hxz.
Qed.

Lemma separating_presents f f' g g' (H H' P P' : graph) m :
  gwf H' -> presents f f' H H' -> presents g g' P P' -> gwf P -> is_mono H P m ->
  separating H P m -> separating H' P' (rename g f m).
Proof.
  intros WH' PH PP WP (A & B & C & D & E) Hs p1' h1' p2' h2' I1 I2 Hc.
  apply in_rename in I1. apply in_rename in I2.
  destruct I1 as (p1 & h1 & I1 & -> & ->), I2 as (p2 & h2 & I2 & -> & ->).
  assert (Hp1 : In p1 (node_ids P)) by (apply B; change p1 with (fst (p1, h1)); apply in_map; exact I1).
  assert (Hh1 : In h1 (node_ids H)) by exact (proj1 (D _ _ I1)).
  assert (Hh2 : In h2 (node_ids H)) by exact (proj1 (D _ _ I2)).
  apply (gconn_presents g g' P P' WP PP p1 p2 Hp1).
  apply (Hs p1 h1 p2 h2 I1 I2).
  pose proof (gconn_presents f' f H' H WH' (presents_sym _ _ _ _ PH) (f h1) (f h2) (pr_in _ _ _ _ PH h1 Hh1) Hc) as Hc'.
  rewrite (pr_inv _ _ _ _ PH h1 Hh1), (pr_inv _ _ _ _ PH h2 Hh2) in Hc'. exact Hc'.
Qed.

Lemma rename_perm g f m m' : Permutation m m' -> Permutation (rename g f m) (rename g f m').
Proof. apply Permutation_map. Qed.

(** exhaustive strategy, no limits: the results of two presentations correspond through the renamings *)
Theorem all_presentation_invariant enum enum' T T' strict strict' f f' g g' (H H' P P' : graph) :
  presents f f' H H' -> presents g g' P P' ->
  vf2_contract enum H P (node_ids H) (node_ids P) -> vf2_contract enum' H' P' (node_ids H') (node_ids P') ->
  (lenN (enum (node_ids H) (node_ids P)) <= T)%N -> (lenN (enum' (node_ids H') (node_ids P')) <= T')%N ->
  forall m, In m (find enum (Cfg 0 0 T strict false) H P) ->
  exists m', In m' (find enum' (Cfg 0 0 T' strict' false) H' P') /\ Permutation (rename g f m) m'.
Proof.
  intros PH PP C1 C2 L1 L2 m Hm.
  destruct (all_exact enum T strict H P C1 L1) as (S1 & _ & _).
  destruct (all_exact enum' T' strict' H' P' C2 L2) as (_ & S2 & _).
  apply S2. apply (is_mono_presents f f' g g' H H' P P' m PH PP). apply S1. exact Hm.
Qed.

(** component-aware strategy, no limits, with the equality of the component counts of the two
    presentations as a premise (discharged in proof/C06_IsoCount.v: [comps_count_presents]) *)
Theorem comp_presentation_invariant_partial enum enum' strict f f' g g' (H H' P P' : graph) :
  gwf H -> gwf P -> gwf H' -> gwf P' ->
  presents f f' H H' -> presents g g' P P' ->
  oracle_ok enum H P -> oracle_ok enum' H' P' ->
  length (comps H') = length (comps H) -> length (comps P') = length (comps P) ->
  exists T0 : N, forall T : N, (T0 <= T)%N ->
  forall m, In m (find enum (Cfg 1 0 T strict false) H P) ->
  exists m', In m' (find enum' (Cfg 1 0 T strict false) H' P') /\ Permutation (rename g f m) m'.
Proof.
  intros WH WP WH' WP' PH PP O1 O2 EH EP.
  destruct (comp_spec enum strict H P WH WP O1) as (T1 & HT1).
  destruct (comp_spec enum' strict H' P' WH' WP' O2) as (T2 & HT2).
  exists (N.max T1 T2). intros T HT m Hm.
  specialize (HT1 T ltac:(lia)). specialize (HT2 T ltac:(lia)). cbv zeta in HT1, HT2.
  destruct HT1 as [_ C1]. destruct HT2 as [_ C2]. rewrite EH, EP in C2.
  destruct ((0 <? length (comps P)) && (length (comps P) <? length (comps H)) && strict).
  - rewrite C1 in Hm. destruct Hm.
  - destruct (length (comps H) <? length (comps P)).
    + destruct C1 as [S1 _]. destruct C2 as [_ S2]. apply S2.
      apply (is_mono_presents f f' g g' H H' P P' m PH PP). apply S1. exact Hm.
    + destruct C1 as [S1 _]. destruct C2 as [_ S2]. destruct (S1 m Hm) as [Hmono Hsep]. apply S2.
      * exact (is_mono_presents f f' g g' H H' P P' m PH PP Hmono).
      * exact (separating_presents f f' g g' H H' P P' m WH' PH PP WP Hmono Hsep).
Qed.

(** ---------- non-vacuity: a path O-C-C presented twice (ids and list orders differ) ---------- *)
Local Open Scope N_scope.
Definition Ha : graph := LG [ (1, ([1], 0)); (2, ([1], 0)); (3, ([2], 1)) ] [ (1, 2, [1]); (2, 3, [1]) ].
Definition Hb : graph := LG [ (7, ([2], 1)); (5, ([1], 0)); (9, ([1], 0)) ] [ (7, 5, [1]); (5, 9, [1]) ].
Definition Pa : graph := LG [ (1, ([1], 0)); (2, ([2], 0)) ] [ (1, 2, [1]) ].
Definition Pb : graph := LG [ (4, ([2], 0)); (8, ([1], 0)) ] [ (8, 4, [1]) ].
Definition fH (u : N) : N := match u with 1 => 9 | 2 => 5 | 3 => 7 | _ => 0 end.
Definition fH' (u : N) : N := match u with 9 => 1 | 5 => 2 | 7 => 3 | _ => 0 end.
Definition fP (u : N) : N := match u with 1 => 8 | 2 => 4 | _ => 0 end.
Definition fP' (u : N) : N := match u with 8 => 1 | 4 => 2 | _ => 0 end.

Ltac fin_nodes := simpl; intros; repeat match goal with H : _ \/ _ |- _ => destruct H | H : False |- _ => destruct H end; subst; vm_compute; auto 10.

Lemma presents_Hab : presents fH fH' Ha Hb.
Proof. constructor; fin_nodes. Qed.
Lemma presents_Pab : presents fP fP' Pa Pb.
Proof. constructor; fin_nodes. Qed.

Example ex_presentation :
  find (monos_on Ha Pa) (Cfg 0 0 5000 true false) Ha Pa = [[(2, 3); (1, 2)]] /\
  find (monos_on Hb Pb) (Cfg 0 0 5000 true false) Hb Pb = [[(8, 5); (4, 7)]] /\
  Permutation (rename fP fH [(2, 3); (1, 2)]) [(8, 5); (4, 7)].
Proof.
  split; [vm_compute; reflexivity|split; [vm_compute; reflexivity|]].
  vm_compute. apply perm_swap.
Qed.
