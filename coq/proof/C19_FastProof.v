(** C19 — the evaluation-friendly variants of model/C19_Fast.v are EQUAL to the functions of model/C19_Model.v that every
    theorem of props/C19.v talks about; the fast certificate flag implies the certificate flag.  stdlib lists. *)
From Coq Require Import List NArith ZArith Bool Arith Lia.
From SK Require Import lib.Tok lib.Reach lib.C19_FastClosure model.C17_Model model.C19_Model model.C19_Fast.
Require SK.lib.C19_FastRank.
Import ListNotations.
Local Open Scope nat_scope.

Lemma complex_graph_f_eq net iso : complex_graph_f net iso = complex_graph net iso.
Proof. reflexivity. Qed.
Lemma build_S_f_eq net iso : build_S_f net iso = build_S net iso.
Proof. reflexivity. Qed.

Lemma closure_f_eq nbr k u : closure_f nbr k u = closure nbr k u.
Proof. unfold closure_f, closure. rewrite sat_f_seed. reflexivity. Qed.

Lemma classes_go_f_eq nbr k todo : forall seen, classes_go_f nbr k todo seen = classes_go nbr k todo seen.
Proof.
  induction todo as [|u rest IH]; intros seen; simpl; [reflexivity|].
  destruct (mem u seen); [apply IH|]. rewrite closure_f_eq, IH. reflexivity.
Qed.
Lemma linkage_classes_f_eq arcs k : linkage_classes_f arcs k = linkage_classes arcs k.
Proof. apply classes_go_f_eq. Qed.

Lemma forallb_ext {A} (f g : A -> bool) l : (forall x, f x = g x) -> forallb f l = forallb g l.
Proof. intros H. induction l as [|a l IH]; simpl; [reflexivity|]. rewrite H, IH. reflexivity. Qed.

Lemma strongly_connected_f_eq arcs k c : strongly_connected_f arcs k c = strongly_connected arcs k c.
Proof. destruct c as [|u c]; [reflexivity|]. unfold strongly_connected_f, strongly_connected. rewrite !closure_f_eq. reflexivity. Qed.
Lemma weakly_reversible_f_eq arcs k : weakly_reversible_f arcs k = weakly_reversible arcs k.
Proof.
  unfold weakly_reversible_f, weakly_reversible. rewrite linkage_classes_f_eq. apply forallb_ext. apply strongly_connected_f_eq.
Qed.

Lemma scc_f_eq arcs k v : scc_f arcs k v = scc arcs k v.
Proof. unfold scc_f, scc. cbv zeta. rewrite !closure_f_eq. reflexivity. Qed.
Lemma is_terminal_f_eq arcs k v : is_terminal_f arcs k v = is_terminal arcs k v.
Proof. unfold is_terminal_f, is_terminal. rewrite !closure_f_eq. reflexivity. Qed.
Lemma is_rep_f_eq arcs k c v : is_rep_f arcs k c v = is_rep arcs k c v.
Proof. unfold is_rep_f, is_rep. cbv zeta. rewrite scc_f_eq. reflexivity. Qed.
Lemma terminal_count_f_eq arcs k c : terminal_count_f arcs k c = terminal_count arcs k c.
Proof.
  unfold terminal_count_f, terminal_count. f_equal. apply filter_ext. intros v. rewrite is_rep_f_eq, is_terminal_f_eq. reflexivity.
Qed.
Lemma regular_f_eq arcs k : regular_f arcs k = regular arcs k.
Proof.
  unfold regular_f, regular. rewrite linkage_classes_f_eq. apply forallb_ext. intros c. rewrite terminal_count_f_eq. reflexivity.
Qed.

Lemma compute_summary_f_eq net iso r : compute_summary_f net iso r = compute_summary net iso r.
Proof.
  unfold compute_summary_f, summary_of, compute_summary. rewrite complex_graph_f_eq. destruct (complex_graph net iso) as [cs arcs].
  rewrite linkage_classes_f_eq, weakly_reversible_f_eq. reflexivity.
Qed.

(** the observable computed with the fast functions is the observable of model/C19_Model.v, for every certificate flag *)
Theorem run19_flag_f_eq flag net iso rc ccs : run19_flag_f flag net iso rc ccs = run19_flag flag net iso rc ccs.
Proof.
  unfold run19_flag_f, run19_of, run19_flag. destruct net as [|e net]; [reflexivity|].
  fold (compute_summary_f (e :: net) iso (rc_r rc)). rewrite compute_summary_f_eq, complex_graph_f_eq.
  destruct (complex_graph (e :: net) iso) as [cs arcs].
  rewrite linkage_classes_f_eq, regular_f_eq. reflexivity.
Qed.

Lemma rank_checked_f_sound m n S c : rank_checked_f m n S c = true -> rank_checked m n S c = true.
Proof. unfold rank_checked_f, rank_checked. apply SK.lib.C19_FastRank.check_rank_f_sound. Qed.

(** the fast certificate flag implies the flag the rank theorems ask for *)
Theorem certs_ok_f_sound net iso rc ccs : certs_ok_f net iso rc ccs = true -> certs_ok net iso rc ccs = true.
Proof.
  unfold certs_ok_f, certs_of, certs_ok. rewrite complex_graph_f_eq, build_S_f_eq. destruct (complex_graph net iso) as [cs arcs].
  rewrite linkage_classes_f_eq. intros H. apply andb_prop in H. destruct H as [H H3]. apply andb_prop in H. destruct H as [H1 H2].
  rewrite (rank_checked_f_sound _ _ _ _ H1), H2. simpl.
  rewrite forallb_forall in *. intros p I. apply rank_checked_f_sound. apply H3. exact I.
Qed.

(** hence: when the evaluated observable run19f shows the flag 1, it IS run19 of the same inputs, with accepted certificates *)
Theorem run19f_spec net iso rc ccs : certs_ok_f net iso rc ccs = true ->
  run19f net iso rc ccs = run19 net iso rc ccs /\ certs_ok net iso rc ccs = true.
Proof.
  intros H. pose proof (certs_ok_f_sound _ _ _ _ H) as H'. split; [|exact H'].
  unfold run19f, run19. cbv zeta. fold (certs_ok_f net iso rc ccs). fold (run19_flag_f (certs_ok_f net iso rc ccs) net iso rc ccs).
  rewrite run19_flag_f_eq, H, H'. reflexivity.
Qed.

(* non-vacuity: A + B <-> C, C -> 2A *)
Definition exf_net : list rxn :=
  [([49%N], [114%N], [([65%N], 1%Z); ([66%N], 1%Z)], [([67%N], 1%Z)]);
   ([50%N], [114%N], [([67%N], 1%Z)], [([65%N], 1%Z); ([66%N], 1%Z)]);
   ([51%N], [114%N], [([67%N], 1%Z)], [([65%N], 2%Z)])].
Definition exf_rc : rcert :=
  RCert 2 [[1; 2]; [1; 0]; [-1; -1]]%Z [[-1; 1; 0]; [0; 0; 1]]%Z [[0; -2; 0]; [1; -1; 0]]%Z [[1; 0]; [0; 0]; [0; 1]]%Z 2%Z.
Example ex_fast : rank_checked_f 3 3 (build_S_f exf_net []) exf_rc = true /\
  complex_graph_f exf_net [] = ([[1; 1; 0]; [0; 0; 1]; [2; 0; 0]]%Z, [(0, 1); (1, 0); (1, 2)]) /\
  regular_f (snd (complex_graph_f exf_net [])) 3 = true /\ weakly_reversible_f (snd (complex_graph_f exf_net [])) 3 = false.
Proof. repeat apply conj; vm_compute; reflexivity. Qed.
