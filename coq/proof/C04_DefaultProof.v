(** C04 — default (explicit-hydrogen) mode: from the precondition (as the boolean [default_okb]) to the regeneration
    before _explicit_h, through C03's characterisation of _strip_explicit_h (proof/C03_StripCor.v), and on
    through _explicit_h (proof/C04_Explicit.v) to the end of its_list. *)
From Coq Require Import List NArith ZArith Bool.
From SK Require Import lib.LGraph model.C03_Model model.C04_Model proof.C03_Proof proof.C03_StripCor proof.C04_Glue proof.C04_Template proof.C04_Any
                       proof.C04_Proof proof.C04_Default proof.C04_Explicit.
Import ListNotations.
Local Open Scope Z_scope.

Lemma foldableb_sound g : NoDup (node_ids g) -> foldableb g = true -> foldable g.
Proof.
  intros Hnd H h Hh. unfold foldableb in H. eapply forallb_elim in H; [|exact (proj2 (h_nodes_h_spec g Hnd h) Hh)]. destruct (nbrs g h) as [|x0 xs] eqn:E; [discriminate|].
  split; [discriminate|]. intros x I. eapply forallb_elim in H; [|exact I]. apply andb_prop in H. destruct H as [H1 H2].
  split; [apply negb_true_iff; exact H1|exact H2].
Qed.

Lemma in_nbrs {V B} (g : lgraph V B) u v x : In (u, v, x) (gedges g) -> In v (nbrs g u) /\ In u (nbrs g v).
Proof.
  intros I. unfold nbrs. split; apply in_flat_map; exists (u, v, x); (split; [exact I|]).
  - rewrite N.eqb_refl. left. reflexivity.
  - destruct (N.eqb u v) eqn:E; [apply N.eqb_eq in E; subst; left; reflexivity|]. rewrite N.eqb_refl. left. reflexivity.
Qed.

Section DefaultMode.
  Variables (A B : hostg) (tpl : its).
  Hypothesis PW : pair_wf A B.
  Hypothesis CA : closed A.
  Hypothesis CB : closed B.
  Hypothesis D : describes A B tpl.
  Hypothesis OK : default_okb A B tpl = true.
  Let HA := pw_A _ _ PW.
  Let HB := pw_B _ _ PW.
  Let Hwr := d_wf _ _ _ D.

  Let OK1 := proj1 (andb_prop _ _ (proj1 (andb_prop _ _ (proj1 (andb_prop _ _ (proj1 (andb_prop _ _ OK))))))).
  Let OK2 := proj2 (andb_prop _ _ (proj1 (andb_prop _ _ (proj1 (andb_prop _ _ (proj1 (andb_prop _ _ OK))))))).
  Let OK3 := proj2 (andb_prop _ _ (proj1 (andb_prop _ _ (proj1 (andb_prop _ _ OK))))).
  Let OK4 := proj2 (andb_prop _ _ (proj1 (andb_prop _ _ OK))).
  Let OK5 := proj2 (andb_prop _ _ OK).

  Lemma dE12 n x y : label A n = Some x -> label B n = Some y -> a_hc x = a_hc y /\ 0 <= a_hc x.
  Proof.
    intros Ex Ey. pose proof OK1 as H. eapply forallb_elim in H; [|exact (assoc_in n (gnodes A) Ex)]. simpl in H.
    rewrite Ey in H. apply andb_prop in H. destruct H as [H1 H2]. split; [apply Z.eqb_eq; exact H1|apply Z.leb_le; exact H2].
  Qed.
  Lemma dFA : foldable A.
  Proof. apply foldableb_sound; [exact (wf_host_nodup A HA)|exact OK2]. Qed.
  Lemma dFB : foldable B.
  Proof. apply foldableb_sound; [exact (wf_host_nodup B HB)|exact OK3]. Qed.
  Lemma dE3 h : is_H_h A h = true -> In h (node_ids tpl) ->
    forall k, adj A h k <> None \/ adj B h k <> None -> exists x, adj tpl h k = Some x.
  Proof.
    intros Hh It. pose proof OK4 as H. eapply forallb_elim in H; [|exact (proj2 (h_nodes_h_spec A (wf_host_nodup A HA) h) Hh)].
    apply mem_spec in It. rewrite It in H. rename H into H2.
    intros k Hk.
    assert (K : forall (X : hostg), (forall e, In e (gedges X) -> In e (gedges A ++ gedges B)) -> adj X h k <> None -> exists x, adj tpl h k = Some x).
    { intros X HX Ne. destruct (adj X h k) as [o|] eqn:Ea; [|congruence]. unfold adj in Ea. apply find_edge_in in Ea.
      destruct Ea as (p & q & I & Hp). eapply forallb_elim in H2; [|exact (HX _ I)]. simpl in H2.
      assert (Eh : N.eqb p h || N.eqb q h = true).
      { destruct (peq_elim _ _ _ _ Hp) as [[-> _]|[_ ->]]; rewrite N.eqb_refl; [reflexivity|apply orb_true_r]. }
      rewrite Eh in H2. unfold has_adj in H2. destruct (adj tpl p q) as [x|] eqn:Et; [|discriminate]. exists x.
      unfold adj in *. rewrite <- (find_edge_peq (gedges tpl) p q h k Hp). exact Et. }
    destruct Hk as [Hk|Hk]; [apply (K A); [intros; apply in_or_app; auto|exact Hk]|apply (K B); [intros; apply in_or_app; auto|exact Hk]].
  Qed.

  Lemma tpl_el k a : In (k, a) (gnodes tpl) -> a_el (iH a) = a_el (iG a).
  Proof.
    intros I. destruct (d_nodes _ _ _ D k a I) as (x & y & Ex & Ey & N1 & N2 & _). rewrite N1, N2. symmetry. exact (pw_el _ _ PW k x y Ex Ey).
  Qed.
  Lemma isH_tpl h : is_H_i tpl h = true <-> In h (node_ids tpl) /\ is_H_h A h = true.
  Proof.
    unfold is_H_i, is_H_h. split.
    - destruct (label tpl h) as [a|] eqn:E; [|discriminate]. intros Ha. split; [exact (label_some_in tpl h a E)|].
      destruct (d_nodes _ _ _ D h a (assoc_in h (gnodes tpl) E)) as (x & y & Ex & _ & N1 & _). rewrite Ex, <- N1. exact Ha.
    - intros [I Ha]. destruct (in_ids_label tpl h I) as [a E]. rewrite E.
      destruct (d_nodes _ _ _ D h a (assoc_in h (gnodes tpl) E)) as (x & y & Ex & _ & N1 & _). rewrite Ex in Ha. rewrite N1. exact Ha.
  Qed.
  Lemma all_H_strippable h : is_H_i tpl h = true -> heavy_nbr (side0 iG eG tpl) h = true /\ heavy_nbr (side0 iH eH tpl) h = true.
  Proof.
    intros Hh. unfold is_H_i in Hh.
    destruct (label tpl h) as [a|] eqn:E; [|discriminate]. pose proof (forallb_elim _ _ _ OK5 (assoc_in h (gnodes tpl) E)) as H. simpl in H.
    rewrite Hh in H. apply andb_prop in H. exact H.
  Qed.

  (** C03's pointwise description of the stripped rule, its premise "every template hydrogen is strippable" discharged from
      [default_okb]: [R] are the template's hydrogen atoms, the rule keeps the other atoms, their hydrogen counts are the
      numbers of bonds to [R] on each side *)
  Lemma default_rule_spec rc l r : synrule tpl true = Some (rc, l, r) ->
    exists R, NoDup R /\ (forall h, In h R <-> is_H_i tpl h = true) /\
      has_XH l = false /\ node_ids l = node_ids rc /\ NoDup (node_ids rc) /\
      (forall k, In k (node_ids rc) <-> In k (node_ids tpl) /\ ~ In k R) /\
      (forall k a0, label tpl k = Some a0 -> ~ In k R ->
         exists a, label rc k = Some a /\ a_el (iG a) = a_el (iG a0) /\ a_el (iH a) = a_el (iH a0) /\
                   a_ch (iG a) = a_ch (iG a0) /\ a_ch (iH a) = a_ch (iH a0) /\
                   a_hc (iG a) = sum_cnt (gedges (side0 iG eG tpl)) R k /\ a_hc (iH a) = sum_cnt (gedges (side0 iH eH tpl)) R k) /\
      gedges rc = filter (keepe R) (gedges tpl).
  Proof.
    intros Es.
    destruct (synrule_default_pointwise tpl rc l r (tpl_nodupb A B tpl D) tpl_el Es) as (R & RN & RH & Ri & Rl & _ & RCn & RCe & RCa & RX).
    assert (AllH : forall h, is_H_i tpl h = true -> In h R).
    { intros h Hh. apply RH. destruct (all_H_strippable h Hh). auto. }
    exists R. split; [exact RN|]. split; [intros h; split; [intros I; exact (proj1 (proj1 (RH h) I))|exact (AllH h)]|].
    split; [exact (proj1 (RX AllH))|]. split; [exact Rl|]. split; [exact RCn|].
    split; [intros k; rewrite Ri; apply in_filter_notmem|]. split; [|exact RCe].
    intros k a0 E NI. destruct (RCa k a0 E NI) as (a & Ea & S1 & S2 & C1 & C2). exists a. split; [exact Ea|].
    assert (NH : N.eqb (a_el (iG a0)) EL_H = false).
    { destruct (N.eqb (a_el (iG a0)) EL_H) eqn:Eh; [|reflexivity]. exfalso. apply NI. apply AllH. unfold is_H_i. rewrite E. exact Eh. }
    rewrite NH in C1, C2. unfold set_hc in S1, S2. inversion S1. inversion S2. repeat split; assumption.
  Qed.

  (** the rule the reactor prepares in the default mode describes the pair of implicit-hydrogen forms; the matcher's
      pattern is its left side as it is *)
  Theorem default_rule :
    exists rc l r, synrule tpl true = Some (rc, l, r) /\ pattern_of l = l /\ node_ids l = node_ids rc /\
      pair_wf (h_to_implicit_host A) (h_to_implicit_host B) /\ describes (h_to_implicit_host A) (h_to_implicit_host B) rc.
  Proof.
    destruct (synrule_default_total tpl (tpl_nodupb A B tpl D) tpl_el) as (rc & l & r & Es). exists rc, l, r. split; [exact Es|].
    destruct (default_rule_spec rc l r Es) as (R & RN & RH & X1 & Rl & RCn & RCi & RCa & RCe).
    split; [unfold pattern_of; rewrite X1; reflexivity|]. split; [exact Rl|].
    pose proof (fun n x y Ex Ey => proj1 (dE12 n x y Ex Ey)) as E1.
    assert (E2 : forall n x, label A n = Some x -> 0 <= a_hc x).
    { intros n x Ex. destruct (in_ids_label B n (proj1 (pw_ids _ _ PW n) (label_some_in A n x Ex))) as [y Ey]. exact (proj2 (dE12 n x y Ex Ey)). }
    split.
    - exact (pair_folded A B PW dFA dFB).
    - exact (rule_describes_folded A B tpl rc R PW D E1 E2 dFA dFB dE3 (fun h => iff_trans (RH h) (isH_tpl h)) RN RCn RCi RCa RCe).
  Qed.
End DefaultMode.

(** * the theorem for the reaction's own templates *)
Lemma default_okb_foldable A B t : pair_wf A B -> default_okb A B t = true -> foldable A /\ foldable B.
Proof. intros PW OK. exact (conj (dFA A B t PW OK) (dFB A B t PW OK)). Qed.

Section OwnTemplate.
  Variables (core invert : bool) (G H : hostg).
  Hypothesis W : pair_wfb G H = true.
  Let A := if invert then H else G.
  Let B := if invert then G else H.
  Let tpl := template core invert G H.
  Hypothesis OK : default_okb A B tpl = true.
  Hypothesis CC : core = true -> centre_carries (its_construct G H) = true.
  Let PW : pair_wf G H := proj1 (pair_wfb_sound G H W).
  Let CG : closed G := proj1 (proj2 (pair_wfb_sound G H W)).
  Let CH : closed H := proj2 (proj2 (pair_wfb_sound G H W)).

  Lemma pair_AB' : pair_wf A B.
  Proof. unfold A, B. destruct invert; [apply pair_wf_sym|]; exact PW. Qed.
  Lemma fold_GH : foldable G /\ foldable H.
  Proof. destruct (default_okb_foldable A B tpl pair_AB' OK) as [FA FB]. unfold A, B in *. destruct invert; auto. Qed.

  Lemma T0_isH u : is_H_i (its_construct G H) u = true -> is_H_h G u = true.
  Proof.
    unfold is_H_i, is_H_h. destruct (label (its_construct G H) u) as [a|] eqn:E; [|discriminate].
    destruct (T0_label G H PW u a E) as [-> I]. destruct (in_ids_label G u I) as [x Ex].
    unfold its_node, side_tuple; simpl. rewrite Ex. auto.
  Qed.
  Lemma NHH' : forall u v x, In (u, v, x) (gedges (its_construct G H)) -> is_hh (its_construct G H) u v = false.
  Proof.
    intros u v x I. unfold is_hh. destruct (is_H_i (its_construct G H) u) eqn:Eu; [|reflexivity].
    destruct (is_H_i (its_construct G H) v) eqn:Ev; [|reflexivity]. exfalso.
    apply T0_isH in Eu. apply T0_isH in Ev. destruct fold_GH as [FG FH].
    destruct (construct_edge G H u v x I) as [(o & Io & _)|(o & Io & _)].
    - destruct (proj2 (FG u Eu) v (proj1 (in_nbrs G u v o Io))) as [K _]. congruence.
    - rewrite <- (isH_AB G H PW u) in Eu. rewrite <- (isH_AB G H PW v) in Ev.
      destruct (proj2 (FH u Eu) v (proj1 (in_nbrs H u v o Io))) as [K _]. congruence.
  Qed.

  Lemma own_describes : describes A B tpl.
  Proof. exact (template_describes_hh core invert G H W NHH' CC). Qed.
  Lemma closed_AB : closed A /\ closed B.
  Proof. unfold A, B. destruct invert; auto. Qed.

  (** default mode: the reactor's rule exists, the matcher's pattern is its left side, the identity is a valid match on
      the substrate and the glued ITS (before _explicit_h re-materialises the migrating hydrogens) decomposes to the
      pair of implicit-hydrogen forms of the reaction's sides *)
  Theorem default_identity_glue : mode_E G H = true ->
    exists rc l r, rule_of core invert G H = Some (rc, l, r) /\ pattern_of l = l /\
      match_rcb (substrate invert G H) rc (id_map (node_ids (pattern_of l))) = true /\
      exists T, glue (substrate invert G H) rc (id_map (node_ids (pattern_of l))) = Some T /\
                regen_exact T (substrate invert G H) (h_to_implicit_host B) = true.
  Proof.
    intros ME. destruct closed_AB as [CA CB].
    destruct (default_rule A B tpl pair_AB' own_describes OK) as (rc & l & r & Es & Ep & El & PW' & D').
    exists rc, l, r. unfold rule_of. rewrite ME. fold tpl. split; [exact Es|]. split; [exact Ep|].
    rewrite Ep, El. unfold substrate. fold A. exact (identity_regen (h_to_implicit_host A) (h_to_implicit_host B) rc PW' D').
  Qed.
End OwnTemplate.

(** * to the END of its_list for the reaction's own templates: rule preparation by _strip_explicit_h, identity match,
      gluing (C04_identity_glue_default), then _explicit_h: the ITS the reactor returns decomposes, in
      implicit-hydrogen normal form, to the reaction *)
Lemma glued_ids host rc m T : glue host rc m = Some T -> node_ids T = node_ids host.
Proof.
  intros Hg. unfold node_ids. rewrite (glue_gnodes host rc m T Hg). change (map fst (gnodes ?g)) with (node_ids g).
  rewrite glue_nodes_ids. unfold node_ids, its_of_host; cbn [gnodes]. rewrite map_map. reflexivity.
Qed.

Lemma own_explicit_end (core invert : bool) (G H : hostg) (rc : its) (y : mapping) (T T' : its) (ms : list (N * N)) :
  pair_wfb G H = true ->
  default_okb (if invert then H else G) (if invert then G else H) (template core invert G H) = true ->
  glue (substrate invert G H) rc y = Some T ->
  regen_exact T (substrate invert G H) (h_to_implicit_host (if invert then G else H)) = true ->
  explicit_h T = Some (T', ms) ->
  regen_folded T' (if invert then H else G) (if invert then G else H) = true.
Proof.
  intros W OK ET RE EX. pose proof (pair_AB' core invert G H W OK) as PW. destruct (closed_AB core invert G H W OK) as [CA CB].
  destruct (default_okb_foldable _ _ _ PW OK) as [FA FB]. pose proof (pw_A _ _ PW) as HA.
  apply (explicit_end T T' ms _ _ HA (pw_B _ _ PW) FA FB CA CB); [| |exact EX].
  - rewrite (glued_ids _ _ _ _ ET). destruct (fold_host_spec _ (wf_host_nodup _ HA) FA) as (_ & _ & FAA).
    exact (folded_nodup _ _ _ FAA HA).
  - exact RE.
Qed.

Theorem default_identity_end (core invert : bool) (G H : hostg) :
  pair_wfb G H = true -> mode_E G H = true ->
  default_okb (if invert then H else G) (if invert then G else H) (template core invert G H) = true ->
  (core = true -> centre_carries (its_construct G H) = true) ->
  (forall rc l r T, rule_of core invert G H = Some (rc, l, r) ->
     glue (substrate invert G H) rc (id_map (node_ids (pattern_of l))) = Some T -> explicit_h T <> None) ->
  exists T' : its, regenerate core invert G H = Some T' /\
    regen_folded T' (if invert then H else G) (if invert then G else H) = true.
Proof.
  intros W ME OK CC Tot.
  destruct (default_identity_glue core invert G H W OK CC ME) as (rc & l & r & Er & Ep & Hm & T & ET & RE).
  destruct (explicit_h T) as [[T' ms]|] eqn:EX; [|exfalso; exact (Tot rc l r T Er ET EX)].
  exists T'. split.
  - unfold regenerate. rewrite Er, ME, ET. unfold finish. rewrite EX. reflexivity.
  - exact (own_explicit_end core invert G H rc _ T T' ms W OK ET RE EX).
Qed.
