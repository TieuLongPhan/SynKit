(** C13 -- the [clusters] list returned by GraphCluster.iterative_cluster is a partition of the index set:
    no index occurs twice (in one cluster or in two), whatever the isomorphism test answers; with a reflexive
    test every index 0..n-1 occurs.  (Together with proof/C13_More.clusters_sync: cluster c = the indices whose
    rule_to_cluster entry is c.) *)
From Coq Require Import List ZArith Bool Lia.
From SK Require Import lib.LGraph lib.C13_Partition model.C13_Model proof.C13_Proof proof.C13_More.
Import ListNotations.

Section Clusters.
Variable iso : item -> item -> bool.
Variable mode : attr_mode.

Lemma joined_in xi rest vis k : In k (joined iso mode xi rest vis) -> In k (map fst rest) /\ memb k vis = false.
Proof.
  intros H. apply in_map_iff in H. destruct H as ([j xj] & <- & F). apply filter_In in F. destruct F as (I & F).
  split; [now apply (in_map fst) in I|]. apply andb_prop in F. destruct F as (F & _). apply andb_prop in F.
  destruct F as (_ & F). now apply negb_true_iff in F.
Qed.

Lemma joined_nodup xi rest vis : NoDup (map fst rest) -> NoDup (joined iso mode xi rest vis).
Proof.
  unfold joined. induction rest as [|[j xj] r IH]; intros H; [constructor|]. inversion H as [|? ? Hj Hr]; subst.
  cbn [filter fst snd].
  destruct (zlist_eqb (gc_key mode xi) (gc_key mode xj) && negb (memb j vis) && iso xi xj); [|now apply IH].
  cbn [map fst]. constructor; [|now apply IH]. intros Hin. apply in_map_iff in Hin. destruct Hin as (jx & E & F).
  apply filter_In in F. destruct F as (I & _). apply (in_map fst) in I. rewrite E in I. contradiction.
Qed.

(** invariant: the members of the clusters so far are pairwise distinct and all marked visited; a new cluster consists of
    entries that were not *)
Lemma gc_outer_disjoint todo : forall visited clusters r2c,
  NoDup (map fst todo) -> NoDup (concat clusters) -> (forall k, In k (concat clusters) -> memb k visited = true) ->
  NoDup (concat (fst (gc_outer iso mode todo visited clusters r2c))).
Proof.
  induction todo as [|[i xi] rest IH]; intros visited clusters r2c Hnd Hc Hv; [exact Hc|].
  inversion Hnd as [|? ? Hi Hnd']; subst. rewrite (gc_outer_cons iso mode _ _ _ _ _ _ Hi Hnd').
  destruct (memb i visited) eqn:Ev; [now apply IH|]. cbv zeta.
  pose proof (joined_in xi rest visited) as Hjs. set (js := joined iso mode xi rest visited) in *.
  apply IH; [exact Hnd'| |]; rewrite concat_app; cbn [concat]; rewrite app_nil_r.
  - apply NoDup_app_intro; [exact Hc| |].
    + constructor; [intros H; now apply Hjs in H|now apply joined_nodup].
    + intros k Hk [<-|Hk']; apply Hv in Hk; [congruence|]. apply Hjs in Hk'. destruct Hk'. congruence.
  - intros k Hk. apply memb_spec, in_or_app. apply in_app_or in Hk. destruct Hk as [Hk|[<-|Hk]].
    + right. right. now apply memb_spec, Hv.
    + right. now left.
    + left. now apply -> in_rev.
Qed.

Theorem clusters_disjoint data : NoDup (concat (fst (gc_iterative iso mode data))).
Proof.
  apply gc_outer_disjoint; [rewrite enum_from_fst; apply seq_NoDup|constructor|intros k []].
Qed.

End Clusters.

Theorem clusters_cover iso mode data : (forall x, In x data -> iso x x = true) ->
  forall i, i < length data ->
  exists c, c < length (fst (gc_iterative iso mode data)) /\ In i (nth c (fst (gc_iterative iso mode data)) []).
Proof.
  intros Hrefl i Hi.
  destruct (nth_error data i) as [x|] eqn:Hx; [|apply nth_error_None in Hx; lia].
  destruct (gc_iterative_total iso mode data i x Hrefl Hx) as (c & _ & Hc & Hin).
  exists c. split; [exact Hc|]. now apply clusters_sync_in.
Qed.

Module Example_clusters.
Import Example_abstract.
Example clusters_partition_nonvacuous :
  fst (gc_iterative iso0 ANone data) = [[0; 2]; [1; 3]] /\
  NoDup (concat (fst (gc_iterative iso0 ANone data))) /\
  exists c, c < length (fst (gc_iterative iso0 ANone data)) /\ In 3 (nth c (fst (gc_iterative iso0 ANone data)) []).
Proof.
  split; [vm_compute; reflexivity|]. split; [apply clusters_disjoint|].
  apply clusters_cover; [intros x _; apply N.eqb_refl|simpl; lia].
Qed.
End Example_clusters.

Theorem batch_dicts_spec {X} b (l : list X) : 1 <= b ->
  concat (chunks b l) = l /\ Forall (fun c => 1 <= length c <= b) (chunks b l) /\
  (forall c rest, chunks b l = c :: rest -> rest <> [] -> length c = b).
Proof.
  intros Hb. split; [now apply chunks_concat|]. split; [apply chunks_fuel_spec; [exact Hb|apply le_n]|].
  unfold chunks. intros c rest E Hr. destruct l as [|x r]; [discriminate|].
  change (chunks_fuel (length (x :: r)) b (x :: r)) with
    (firstn b (x :: r) :: chunks_fuel (length r) b (skipn b (x :: r))) in E.
  inversion E as [[Ec Er]]. rewrite firstn_length.
  destruct (le_lt_dec b (length (x :: r))) as [Hle|Hlt]; [lia|].
  exfalso. apply Hr. rewrite <- Er. rewrite skipn_all2 by lia. destruct (length r); reflexivity.
Qed.

Example batch_dicts_nonvacuous : chunks 2 [1; 2; 3; 4; 5] = [[1; 2]; [3; 4]; [5]] /\ chunks 7 [1; 2] = [[1; 2]] /\ chunks 3 (@nil nat) = [].
Proof. repeat split; reflexivity. Qed.
