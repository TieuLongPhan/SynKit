(** C11 (round 5) — the three-label graph built from the attribute dictionaries (model/C11_Attr3.v): under each of the
    three readings its label-preserving automorphisms are the maps preserving the corresponding attribute data.
    Stdlib lists. *)
From Coq Require Import List NArith.
From SK Require Import lib.LGraph model.C11_Model model.C11_Attr model.C11_Attr3 proof.C11_Aut proof.C11_AttrProof.
Import ListNotations.

Theorem three_views (ag : agraph) :
  node_ids (to_graph3 ag) = node_ids ag /\
  (wf ag -> wf (to_graph3 ag)) /\
  (forall s, is_automorphism n_exact e_order (to_graph3 ag) s <-> attr_automorphism DEF_NODE DEF_EDGE ag s) /\
  (forall s, is_automorphism n_wl e_order (to_graph3 ag) s <-> attr_automorphism WL4 DEF_EDGE ag s) /\
  (forall s, is_automorphism n_full e_full (to_graph3 ag) s <-> rule_automorphism [K_atom_map] ag s).
Proof.
  set (f := fun d : attrs => (pick node_default DEF_NODE d, pick node_default WL4 d, dict_tuple [K_atom_map] (keys_of snd (gnodes ag)) d)).
  set (h := fun d : attrs => (pick edge_default DEF_EDGE d, dict_tuple [] (keys_of snd (gedges ag)) d)).
  set (t := picked3 ag).
  set (F := fun l : nlab3 => (lidx (fst (fst l)) (map (fun p => fst (fst (snd p))) (gnodes t)) 0%N,
                              lidx (snd (fst l)) (map (fun p => snd (fst (snd p))) (gnodes t)) 0%N,
                              lidx (snd l) (map (fun p => snd (snd p)) (gnodes t)) 0%N)).
  set (G := fun l : elab3 => (lidx (fst l) (map (fun e => fst (snd e)) (gedges t)) 0%N,
                              lidx (snd l) (map (fun e => snd (snd e)) (gedges t)) 0%N)).
  split; [exact (view_ids _ _ _ _ ag f h F G)|]. split; [|split; [|split]].
  - intros Hw. exact (wf_map_attrs F G t (wf_map_attrs f h ag Hw)).
  - intros s. exact (view_automorphism _ _ _ _ ag f h F G n_exact (fun l => fst (fst l)) (fun a => eq_refl)
                       e_order (fun l => fst l) (fun b => eq_refl) s).
  - intros s. exact (view_automorphism _ _ _ _ ag f h F G n_wl (fun l => snd (fst l)) (fun a => eq_refl)
                       e_order (fun l => fst l) (fun b => eq_refl) s).
  - intros s. etransitivity; [exact (view_automorphism _ _ _ _ ag f h F G n_full (fun l => snd l) (fun a => eq_refl)
                                       e_full (fun l => snd l) (fun b => eq_refl) s)|].
    exact (rule_automorphism_tuples [K_atom_map] ag s).
Qed.

Example ex_three_views :
  let g := to_graph3 ex_ag in
  a_count (analyze n_exact e_order g) = 2%N /\ a_count (analyze n_wl e_order g) = 1%N /\
  length (rule_auts g) = 1%nat /\ wfb g = true.
Proof. vm_compute. repeat split. Qed.
