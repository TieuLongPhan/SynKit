(** C18 — clause 4: the minimal leaves of the search are a duplicate-free enumeration of the structure-preserving
    self-maps of the view (q <-> the map sending the best permutation position-wise to q). *)
From Coq Require Import List NArith ZArith Bool Arith Lia Permutation.
From SK Require Import lib.IRSortKeys lib.IRCore lib.IRSearch lib.StrJoin lib.C18_IRValid lib.C18_IRLeaves model.C18_Model
  proof.C18_Order proof.C18_Spec proof.C18_Graph proof.C18_Canon proof.C18_Equiv proof.C18_Label proof.C18_Aut
  proof.C18_Invariant.
From SK Require lib.IRInst.
Import ListNotations.

(* ---------------- the list of minimal leaves kept by [visit] ---------------- *)
Section FoldFilter.
Variable L : Type.
Variable leb : L -> L -> bool.
Hypothesis leb_total : forall a b, leb a b = true \/ leb b a = true.
Hypothesis leb_trans : forall a b c, leb a b = true -> leb b c = true -> leb a c = true.
Hypothesis leb_antisym : forall a b, leb a b = true -> leb b a = true -> a = b.
Variable label : list N -> L.

Definition St (a : acc L) (seen : list (list N)) : Prop :=
  match fst a with
  | None => seen = [] /\ snd a = []
  | Some (bl, bp) => (forall p, In p seen -> leb bl (label p) = true) /\
                     snd a = filter (fun p => eqb leb (label p) bl) seen
  end.

Lemma filter_none {A} (f : A -> bool) l : (forall x, In x l -> f x = false) -> filter f l = [].
Proof. induction l as [|x l IH]; simpl; intros H; auto. rewrite H by auto. apply IH. auto. Qed.

Lemma St_visit a seen p : St a seen -> St (visit leb label a p) (seen ++ [p]).
Proof.
  unfold St, visit. destruct (fst a) as [[bl bp]|] eqn:Ea.
  - intros [Hle Hs]. destruct (ltb leb (label p) bl) eqn:E1.
    + simpl. apply (ltb_spec leb leb_total leb_antisym) in E1. destruct E1 as [E1 Ene]. split.
      * intros q Hq. apply in_app_or in Hq. destruct Hq as [Hq|[<-|[]]]; [eauto|apply (leb_refl leb leb_total)].
      * rewrite filter_app. rewrite filter_none.
        -- simpl. rewrite (proj2 (eqb_eq leb leb_total leb_antisym _ _) eq_refl). reflexivity.
        -- intros q Hq. destruct (eqb leb (label q) (label p)) eqn:E; auto.
           apply (eqb_eq leb leb_total leb_antisym) in E. exfalso. apply Ene. apply leb_antisym; auto. rewrite <- E. auto.
    + destruct (eqb leb (label p) bl) eqn:E2; simpl; rewrite ?Ea.
      * apply (eqb_eq leb leb_total leb_antisym) in E2. split.
        -- intros q Hq. apply in_app_or in Hq. destruct Hq as [Hq|[<-|[]]]; auto. rewrite E2. apply (leb_refl leb leb_total).
        -- rewrite filter_app, Hs. simpl. rewrite E2, (proj2 (eqb_eq leb leb_total leb_antisym _ _) eq_refl). reflexivity.
      * split.
        -- intros q Hq. apply in_app_or in Hq. destruct Hq as [Hq|[<-|[]]]; auto.
           destruct (leb_total bl (label p)) as [H|H]; auto.
           unfold ltb in E1. rewrite H in E1. simpl in E1. apply negb_false_iff in E1. auto.
        -- rewrite filter_app, Hs. simpl. rewrite E2. rewrite app_nil_r. reflexivity.
  - intros [-> Hs]. simpl. split.
    + intros q [<-|[]]. apply (leb_refl leb leb_total).
    + rewrite (proj2 (eqb_eq leb leb_total leb_antisym _ _) eq_refl). reflexivity.
Qed.

Lemma St_fold l : forall a seen, St a seen -> St (fold_left (visit leb label) l a) (seen ++ l).
Proof.
  induction l as [|p l IH]; intros a seen H; simpl; [rewrite app_nil_r; auto|].
  replace (seen ++ p :: l) with ((seen ++ [p]) ++ l) by (rewrite <- app_assoc; reflexivity).
  apply IH. apply St_visit. auto.
Qed.

Lemma fold_min_leaves l bl bp : fst (fold_left (visit leb label) l (None, [])) = Some (bl, bp) ->
  snd (fold_left (visit leb label) l (None, [])) = filter (fun p => eqb leb (label p) bl) l.
Proof.
  intros E. pose proof (St_fold l (None, []) [] (conj eq_refl eq_refl)) as H. unfold St in H. rewrite E in H. apply H.
Qed.
End FoldFilter.

Lemma min_leaves_filter g lab p : fst (canon_search g) = Some (lab, p) ->
  min_leaves g = filter (fun q => eqb lexlebN (label g q) lab) (leaves_of g).
Proof.
  unfold min_leaves. rewrite canon_search_fold. apply (fold_min_leaves _ lexlebN lexlebN_total lexlebN_trans lexlebN_antisym).
Qed.

Lemma aut_leaf g s p : wf g -> is_aut g s -> In p (leaves_of g) -> In (map s p) (leaves_of g) /\ label g (map s p) = label g p.
Proof.
  intros Hw Ha Hp.
  assert (Hg : geq g (relabel (ext_on (node_ids g) s) g)).
  { apply geq_sym. rewrite (relabel_ext _ s g Hw) by (intros; apply ext_on_in; auto). apply aut_geq; auto. }
  assert (Em : map s p = map (ext_on (node_ids g) s) p).
  { destruct (leaves_of_keys g p Hw Hp) as (pre & r & -> & Hr & _ & Ipre).
    apply map_ext_in. intros v Hv. symmetry. apply ext_on_in. apply in_app_or in Hv.
    destruct Hv as [Hv|Hv]; [apply Ipre; auto|apply (Permutation_in _ Hr Hv)]. }
  rewrite Em. split.
  - apply (Permutation_in _ (leaves_of_rel _ (ext_on_inj _ s (proj1 Ha) (proj1 (proj2 Ha))) g g Hw Hg)). apply in_map. auto.
  - apply (label_rel _ (ext_on_inj _ s (proj1 Ha) (proj1 (proj2 Ha))) g g p Hw Hg).
Qed.

Lemma best_perm_nodes g lab p : wf g -> fst (canon_search g) = Some (lab, p) -> forall v, In v p <-> In v (node_ids g).
Proof.
  intros Hw Hb v. destruct (best_is_leaf g lab p Hb) as [_ Hleaf].
  destruct (leaves_of_keys g p Hw Hleaf) as (pre & r & -> & Hr & _ & Ipre). split.
  - intros Hv. apply in_app_or in Hv. destruct Hv; [apply Ipre; auto|apply (Permutation_in _ Hr); auto].
  - intros Hv. apply in_or_app. right. apply (Permutation_in _ (Permutation_sym Hr)); auto.
Qed.

Theorem aut_count g lab p : wf g -> kinds_ok g -> arcs_ok g -> fst (canon_search g) = Some (lab, p) ->
  NoDup (min_leaves g) /\
  (forall q, In q (min_leaves g) <-> exists s, is_aut g s /\ q = map s p) /\
  (forall s s', is_aut g s -> is_aut g s' -> map s p = map s' p -> forall v, In v (node_ids g) -> s v = s' v).
Proof.
  intros Hw Hk Hka Hb. destruct (best_is_leaf g lab p Hb) as [El Hp].
  pose proof (init_part_vpart g (proj1 Hw)) as Hvp.
  rewrite (min_leaves_filter g lab p Hb).
  split; [|split].
  - apply NoDup_filter. unfold leaves_of.
    apply (leaves_nodup _ IRInst.lexleb IRInst.lexleb_total (fun a b c H1 H2 => IRInst.lexleb_trans a b c H1 H2)
             IRInst.lexleb_antisym (sig g) _ (node_ids g) (proj1 Hw)). auto.
  - intros q. rewrite filter_In. split.
    + intros [Hq Elq]. apply (eqb_eq lexlebN lexlebN_total lexlebN_antisym) in Elq.
      assert (E : label g p = label g q) by congruence.
      destruct (same_label_aut g p q Hw Hk Hka Hp Hq E) as (pre & r & pre' & r' & -> & -> & Hlp & Hnd & Hnd' & Hr & Hr' & Haut).
      assert (Hl : length r = length r') by (rewrite (Permutation_length Hr), (Permutation_length Hr'); auto).
      exists (seqmap r r'). split; auto.
      destruct (aut_leaf g (seqmap r r') (pre ++ r) Hw Haut Hp) as [Hq2 _].
      rewrite map_app, (map_seqmap r r' Hnd Hl) in *.
      unfold leaves_of in Hq, Hq2.
      apply (leaves_tail_inj _ IRInst.lexleb IRInst.lexleb_total (fun a b c H1 H2 => IRInst.lexleb_trans a b c H1 H2)
               IRInst.lexleb_antisym (sig g) _ (node_ids g) (proj1 Hw) _ _ _ _ _ Hvp Hq Hq2).
      exists pre', (map (seqmap r r') pre), r'. repeat split; auto. apply (Permutation_length Hr').
    + intros (s & Hs & ->). destruct (aut_leaf g s p Hw Hs Hp) as [H1 H2]. split; auto.
      apply (eqb_eq lexlebN lexlebN_total lexlebN_antisym). congruence.
  - intros s s' _ _ E v Hv. apply (proj1 map_ext_in_iff E). apply (best_perm_nodes g lab p Hw Hb), Hv.
Qed.

(** exchangeable nodes, read off the minimal leaves: u can be mapped to v by a structure-preserving self-map iff some
    minimal leaf carries v at a position where the best permutation carries u *)
Theorem orbit_pairs g lab p u v : wf g -> kinds_ok g -> arcs_ok g -> fst (canon_search g) = Some (lab, p) ->
  In u (node_ids g) ->
  ((exists s, is_aut g s /\ s u = v) <->
   (exists q i, In q (min_leaves g) /\ i < length p /\ nth i p 0%N = u /\ nth i q 0%N = v)).
Proof.
  intros Hw Hk Hka Hb Hu. destruct (aut_count g lab p Hw Hk Hka Hb) as (_ & Hiff & _).
  split.
  - intros (s & Hs & <-). exists (map s p).
    assert (Iu : In u p) by (apply (best_perm_nodes g lab p Hw Hb), Hu).
    destruct (In_nth p u 0%N Iu) as (i & Hi & Ei). exists i. split; [apply Hiff; eauto|]. split; auto. split; auto.
    rewrite (nth_indep _ 0%N (s 0%N)) by (rewrite map_length; auto). rewrite map_nth. congruence.
  - intros (q & i & Hq & Hi & Eu & Ev). apply Hiff in Hq. destruct Hq as (s & Hs & ->). exists s. split; auto.
    rewrite (nth_indep _ 0%N (s 0%N)) in Ev by (rewrite map_length; auto). rewrite map_nth in Ev. congruence.
Qed.
