(** C18 — the cached graph view of _CRNGraphBackend (model/C18_BackendModel.v): as long as the hypergraph is edited through
    its mutating methods only, every analyzer, however long it has been kept, serves at every read exactly the view a fresh
    analyzer would build for the current network; an edit behind the hypergraph's back is not noticed (witness). *)
From Coq Require Import List NArith ZArith Bool Arith Lia.
From SK Require Import model.C18_Model model.C18_BackendModel proof.C18_Graph.
Import ListNotations.

Definition cache_ok (h : hgraph) (b : backend) : Prop :=
  match bcache b with
  | None => True
  | Some (g, v) => (v <= hver h)%N /\ (v = hver h -> g = view (bbip b) (bst b) (hnet h))
  end.
Definition is_method (e : hedit) : Prop := match e with EMethod _ _ => True | ESilent _ => False end.
Definition method_only (steps : list hstep) : Prop := forall e, In (SEdit e) steps -> is_method e.
Definition brel (h : hgraph) (b : backend) (o : bool * bool) : Prop := bbip b = fst o /\ bst b = snd o /\ cache_ok h b.

Lemma be_G_ok h b : cache_ok h b ->
  snd (be_G b h) = view (bbip b) (bst b) (hnet h) /\ cache_ok h (fst (be_G b h)) /\
  bbip (fst (be_G b h)) = bbip b /\ bst (fst (be_G b h)) = bst b.
Proof.
  unfold cache_ok, be_G. destruct (bcache b) as [[g v]|] eqn:E.
  - intros [Hle Heq]. destruct (N.eqb_spec v (hver h)) as [Ev|Nv]; simpl.
    + rewrite E. repeat split; auto; try lia.
    + repeat split; auto; try lia.
  - intros _. simpl. repeat split; auto; try lia.
Qed.

Lemma edit_ok h e b : is_method e -> cache_ok h b -> cache_ok (hedit_apply h e) b.
Proof.
  destruct e as [n' k|n']; simpl; [|tauto]. intros _. unfold cache_ok. destruct (bcache b) as [[g v]|]; auto.
  simpl. intros [Hle _]. split; lia.
Qed.
Lemma edit_net h e : hnet (hedit_apply h e) = hedit_net e.
Proof. destruct e; reflexivity. Qed.

Lemma Forall2_nth_error {A B} (R : A -> B -> Prop) l l' : Forall2 R l l' -> forall i,
  match nth_error l i, nth_error l' i with
  | Some a, Some b => R a b
  | None, None => True
  | _, _ => False
  end.
Proof. induction 1; intros [|i]; simpl; auto. apply IHForall2. Qed.
Lemma Forall2_set_nth {A B} (R : A -> B -> Prop) l l' : Forall2 R l l' -> forall i a b,
  nth_error l' i = Some b -> R a b -> Forall2 R (set_nth i a l) l'.
Proof.
  induction 1; intros [|i] a b; simpl; try discriminate.
  - intros E Hr. inversion E; subst. constructor; auto.
  - intros E Hr. constructor; eauto.
Qed.

Theorem backend_serves_current : forall steps h bs opts,
  Forall2 (brel h) bs opts -> method_only steps -> run_hist (h, bs) steps = spec_hist (hnet h) opts steps.
Proof.
  induction steps as [|st steps IH]; intros h bs opts Hrel Hm; [reflexivity|].
  assert (Hm' : method_only steps) by (intros e He; apply Hm; right; exact He).
  destruct st as [e|bip st|i]; simpl.
  - rewrite <- edit_net with (h := h). apply IH; auto.
    assert (He : is_method e) by (apply Hm; left; reflexivity).
    eapply Forall2_impl'; [|exact Hrel]. intros b o (H1 & H2 & H3). repeat split; auto. apply edit_ok; auto.
  - apply IH; auto. apply Forall2_app; auto. constructor; [|constructor]. repeat split; simpl; auto.
  - pose proof (Forall2_nth_error _ _ _ Hrel i) as Hi.
    destruct (nth_error bs i) as [b|] eqn:Eb, (nth_error opts i) as [o|] eqn:Eo; try contradiction.
    + destruct Hi as (H1 & H2 & H3). destruct (be_G_ok h b H3) as (Hg & Hc & Hb1 & Hb2).
      rewrite Hg, H1, H2. f_equal. apply (IH h); auto.
      eapply Forall2_set_nth; eauto. repeat split; congruence.
    + apply IH; auto.
Qed.

(** from the start: one hypergraph object, no analyzer yet *)
Corollary backend_history_current n0 v0 steps : method_only steps -> run_hist (HG n0 v0, []) steps = spec_hist n0 [] steps.
Proof. intros Hm. apply (backend_serves_current steps (HG n0 v0) [] []); auto. Qed.

(** reading twice without an edit in between serves the same graph and leaves the analyzer unchanged *)
Lemma be_G_idem b h : be_G (fst (be_G b h)) h = (fst (be_G b h), snd (be_G b h)).
Proof.
  set (fresh := (BE (bbip b) (bst b) (Some (view (bbip b) (bst b) (hnet h), hver h)), view (bbip b) (bst b) (hnet h))).
  assert (Hf : be_G (fst fresh) h = fresh) by (unfold be_G, fresh; simpl; rewrite N.eqb_refl; reflexivity).
  destruct (bcache b) as [[g v]|] eqn:E.
  - destruct (N.eqb_spec v (hver h)) as [Ev|Nv].
    + assert (H : be_G b h = (b, g)) by (unfold be_G; rewrite E; subst; rewrite N.eqb_refl; reflexivity).
      rewrite H. simpl. exact H.
    + assert (H : be_G b h = fresh) by (unfold be_G; rewrite E; destruct (N.eqb_spec v (hver h)); [contradiction|reflexivity]).
      rewrite H. exact Hf.
  - assert (H : be_G b h = fresh) by (unfold be_G; rewrite E; reflexivity).
    rewrite H. exact Hf.
Qed.

(** an edit behind the hypergraph's back: 2A >> B analysed, the coefficient set to 1 through the reaction's side object, the
    kept analyzer read again: it serves the view of the old network (ids A=0 B=1 e1=2) *)
Definition n_old : net := Net [0;1]%N [Rxn 2%N [(0%N, 2%Z)] [(1%N, 1%Z)]].
Definition n_new : net := Net [0;1]%N [Rxn 2%N [(0%N, 1%Z)] [(1%N, 1%Z)]].
Definition silent_script : list hstep := [SNew true true; SRead 0; SEdit (ESilent n_new); SRead 0].
Definition method_script : list hstep := [SNew true true; SRead 0; SEdit (EMethod n_new 1); SRead 0].
Theorem backend_silent_edit_stale :
  run_hist (HG n_old 0, []) silent_script = [view true true n_old; view true true n_old] /\
  spec_hist n_old [] silent_script = [view true true n_old; view true true n_new] /\
  view true true n_old <> view true true n_new.
Proof. vm_compute. repeat split; discriminate. Qed.
Example ex_backend_method : method_only method_script /\
  run_hist (HG n_old 0, []) method_script = [view true true n_old; view true true n_new].
Proof.
  split; [|vm_compute; reflexivity].
  intros e [H|[H|[H|[H|[]]]]]; try discriminate. inversion H; subst. exact I.
Qed.

(** statement forms used by props/C18.v *)
Theorem backend_history_current' n0 v0 steps :
  (forall e, In (SEdit e) steps -> exists n' k, e = EMethod n' k) -> run_hist (HG n0 v0, []) steps = spec_hist n0 [] steps.
Proof. intros H. apply backend_history_current. intros e He. destruct (H e He) as (n' & k & ->). exact I. Qed.
Theorem backend_silent_edit_refuted : exists n0 steps, run_hist (HG n0 0, []) steps <> spec_hist n0 [] steps.
Proof. exists n_old, silent_script. vm_compute. discriminate. Qed.
