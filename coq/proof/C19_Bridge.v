(** C19 — facts about the model that the MathComp rank proofs (proof/C19_Rank.v) consume, stated with plain nat indices:
    every column of build_S is (product complex) - (reactant complex) of the reaction's arc in the complex graph, and
    class membership is constant along arcs, with one representative per class.  Style: stdlib lists. *)
From Coq Require Import List NArith ZArith Bool Arith Lia Permutation.
From SK Require Import lib.Reach model.C17_Model model.C19_Model proof.C17_Proof proof.C19_Complexes proof.C19_Linkage.
Import ListNotations.
Local Open Scope nat_scope.

Definition dummy_rxn : rxn := ([], [], [], []).
Definition col_rxn (net : list rxn) (j : nat) : rxn := nth j (reaction_order net) dummy_rxn.
Definition idx0 (v : list Z) (cs : list (list Z)) : nat := match index_of v cs with Some u => u | None => 0 end.
(** the arc (reactant complex number, product complex number) of the reaction in column j of build_S *)
Definition arc_u (net : list rxn) (iso : list str) (j : nat) : nat :=
  idx0 (cvec Reactant net iso (col_rxn net j)) (fst (complex_graph net iso)).
Definition arc_v (net : list rxn) (iso : list str) (j : nat) : nat :=
  idx0 (cvec Product net iso (col_rxn net j)) (fst (complex_graph net iso)).

Lemma col_rxn_in net j : j < length (reaction_order net) -> In (col_rxn net j) net.
Proof.
  intros H. eapply Permutation_in; [apply reaction_order_perm|]. apply nth_In. exact H.
Qed.

Lemma arc_uv_spec net iso j : j < length (reaction_order net) ->
  let cs := fst (complex_graph net iso) in
  arc_u net iso j < length cs /\ arc_v net iso j < length cs /\
  In (arc_u net iso j, arc_v net iso j) (snd (complex_graph net iso)) /\
  nth (arc_u net iso j) cs [] = cvec Reactant net iso (col_rxn net j) /\
  nth (arc_v net iso j) cs [] = cvec Product net iso (col_rxn net j).
Proof.
  intros H cs. destruct (complex_graph_reaction_arc net iso _ (col_rxn_in net j H)) as (u & v & Hu & Hv & I).
  unfold arc_u, arc_v, idx0. fold cs in Hu, Hv |- *. rewrite Hu, Hv.
  split; [apply (index_of_some _ _ _ Hu)|]. split; [apply (index_of_some _ _ _ Hv)|]. split; [exact I|].
  split; apply index_of_nth; assumption.
Qed.

(** column j of the stoichiometric matrix = product complex - reactant complex of the reaction's arc *)
Lemma S_entry_complexes net iso i j :
  i < length (species_order net iso) -> j < length (reaction_order net) ->
  let cs := fst (complex_graph net iso) in
  nth j (nth i (build_S net iso) []) 0%Z = (nth i (nth (arc_v net iso j) cs []) 0 - nth i (nth (arc_u net iso j) cs []) 0)%Z.
Proof.
  intros Hi Hj cs. destruct (arc_uv_spec net iso j Hj) as (_ & _ & _ & Eu & Ev). fold cs in Eu, Ev. rewrite Eu, Ev.
  rewrite !cvec_nth by exact Hi. rewrite build_S_eq.
  apply (@nth_map2 str rxn (fun s e => (entry Product (bip_arcs net) s (rid e) - entry Reactant (bip_arcs net) s (rid e))%Z)).
  - apply nth_error_nth'. exact Hi.
  - unfold col_rxn. apply nth_error_nth'. exact Hj.
Qed.


Definition cls (L : list (list N)) (c i : nat) : bool := mem (nn i) (nth c L []).
Definition rep (L : list (list N)) (c : nat) : nat := N.to_nat (hd 0%N (nth c L [])).

Lemma NoDup_app_disjoint {A} (l1 l2 : list A) x : NoDup (l1 ++ l2) -> In x l1 -> In x l2 -> False.
Proof.
  induction l1 as [|a l1 IH]; simpl; intros ND I1 I2; [destruct I1|]. inversion ND; subst.
  destruct I1 as [->|I1]; [|eauto]. apply H1. apply in_or_app. auto.
Qed.
Lemma NoDup_app_tail {A} (l1 l2 : list A) : NoDup (l1 ++ l2) -> NoDup l2.
Proof. induction l1 as [|a l1 IH]; simpl; auto. intros ND. inversion ND; auto. Qed.
Lemma NoDup_concat_disjoint {A} (L : list (list A)) : NoDup (concat L) ->
  forall c c' x, c < c' -> c' < length L -> In x (nth c L []) -> In x (nth c' L []) -> False.
Proof.
  induction L as [|a L IH]; intros ND c c' x Hc Hl I1 I2; simpl in *; [lia|].
  destruct c' as [|c']; [lia|]. destruct c as [|c].
  - apply (NoDup_app_disjoint _ _ x ND I1). apply in_concat. exists (nth c' L []). split; auto. apply nth_In. lia.
  - apply (IH (NoDup_app_tail _ _ ND) c c' x); auto; lia.
Qed.

Section Classes.
Variable arcs : list (nat * nat).
Variable k : nat.
Hypothesis OK : arcs_ok arcs k.
Let L := linkage_classes arcs k.

Lemma cls_arc c u v : c < length L -> In (u, v) arcs -> cls L c u = cls L c v.
Proof.
  intros Hc I. unfold cls. assert (Ic : In (nth c L []) L) by (apply nth_In; exact Hc).
  destruct (linkage_spec arcs k OK) as (_ & _ & _ & Q4). fold L in Q4.
  assert (P : upath arcs u v) by (eapply up_step; [constructor|left; exact I]).
  apply mem_iff. split; intros M; [apply (Q4 _ Ic u M v), P|apply (Q4 _ Ic v M u), upath_sym, P].
Qed.

Lemma rep_spec c : c < length L -> rep L c < k /\ In (nn (rep L c)) (nth c L []).
Proof.
  intros Hc. assert (Ic : In (nth c L []) L) by (apply nth_In; exact Hc).
  destruct (linkage_spec arcs k OK) as (_ & _ & Q3 & _). fold L in Q3. destruct (Q3 _ Ic) as (_ & NE).
  unfold rep. destruct (nth c L []) as [|h t] eqn:E; [exfalso; apply NE; reflexivity|]. simpl.
  destruct (class_members arcs k OK _ Ic h) as (i & Hi & ->); [left; reflexivity|].
  unfold nn. rewrite Nat2N.id. split; auto.
Qed.

Lemma cls_rep c c' : c < length L -> c' < length L -> cls L c (rep L c') = (c =? c').
Proof.
  intros Hc Hc'. destruct (rep_spec c' Hc') as (_ & I). unfold cls.
  destruct (linkage_spec arcs k OK) as (ND & _ & _ & _). fold L in ND.
  destruct (Nat.eqb_spec c c') as [->|NE].
  - apply mem_spec. exact I.
  - destruct (mem (nn (rep L c')) (nth c L [])) eqn:M; auto. exfalso. apply mem_spec in M.
    destruct (Nat.lt_total c c') as [Lt|[E|Lt]]; [|contradiction|].
    + exact (NoDup_concat_disjoint L ND c c' _ Lt Hc' M I).
    + exact (NoDup_concat_disjoint L ND c' c _ Lt Hc I M).
Qed.
End Classes.


Lemma complexes_length net iso v : In v (fst (complex_graph net iso)) -> length v = length (species_order net iso).
Proof.
  destruct (complex_graph_inv net iso) as (_ & Hin & _ & _). intros I. apply Hin in I. destruct I as (e & _ & [-> | ->]); apply cvec_length.
Qed.

Lemma vsub_nth a b i : length a = length b -> nth i (vsub a b) 0%Z = (nth i a 0 - nth i b 0)%Z.
Proof.
  intros E. unfold vsub.
  change 0%Z with ((fun p : Z * Z => (fst p - snd p)%Z) (0%Z, 0%Z)) at 1. rewrite map_nth, combine_nth by exact E. reflexivity.
Qed.

Lemma is_zero_vec_nth d i : is_zero_vec d = true -> nth i d 0%Z = 0%Z.
Proof.
  unfold is_zero_vec. rewrite forallb_forall. intros H.
  destruct (Nat.lt_ge_cases i (length d)) as [Lt|Ge]; [|apply nth_overflow; exact Ge].
  apply Z.eqb_eq. apply H. apply nth_In. exact Lt.
Qed.

(** the difference vectors of the class with number c *)
Definition cdiffs (net : list rxn) (iso : list str) (c : nat) : list (list Z) :=
  let cs := fst (complex_graph net iso) in
  let arcs := snd (complex_graph net iso) in
  class_diffs cs arcs (nth c (linkage_classes arcs (length cs)) []).

(** every column of build_S is zero or one of the difference vectors of some linkage class *)
Lemma column_in_class_diffs net iso j : j < length (reaction_order net) ->
  let m := length (species_order net iso) in
  let L := linkage_classes (snd (complex_graph net iso)) (length (fst (complex_graph net iso))) in
  (forall i, i < m -> nth j (nth i (build_S net iso) []) 0%Z = 0%Z) \/
  exists c t, c < length L /\ t < length (cdiffs net iso c) /\
    forall i, i < m -> nth j (nth i (build_S net iso) []) 0%Z = nth i (nth t (cdiffs net iso c) []) 0%Z.
Proof.
  intros Hj m L. unfold cdiffs. fold L.
  set (cs := fst (complex_graph net iso)) in *. set (arcs := snd (complex_graph net iso)) in *.
  pose proof (complex_graph_arcs_ok net iso) as OK. fold cs arcs in OK.
  destruct (arc_uv_spec net iso j Hj) as (Hu & Hv & Ia & _). fold cs arcs in Hu, Hv, Ia.
  set (u := arc_u net iso j) in *. set (v := arc_v net iso j) in *.
  set (d := vsub (nth v cs []) (nth u cs [])).
  assert (Ed : forall i, i < m -> nth j (nth i (build_S net iso) []) 0%Z = nth i d 0%Z).
  { intros i Hi. rewrite (S_entry_complexes net iso i j Hi Hj). fold cs u v. unfold d. rewrite vsub_nth; auto.
    rewrite !(complexes_length net iso) by (apply nth_In; assumption). reflexivity. }
  destruct (is_zero_vec d) eqn:Z0.
  - left. intros i Hi. rewrite (Ed i Hi). apply is_zero_vec_nth. exact Z0.
  - right. destruct (linkage_spec arcs (length cs) OK) as (_ & Q2 & _ & _). fold L in Q2.
    assert (X : In (nn u) (concat L)) by (apply Q2; eauto).
    apply in_concat in X. destruct X as (cl & Icl & Iu).
    destruct (In_nth L cl [] Icl) as (c & Hc & Ec). exists c.
    assert (Mu : mem (nn u) (nth c L []) = true) by (apply mem_spec; rewrite Ec; exact Iu).
    assert (Mv : mem (nn v) (nth c L []) = true).
    { pose proof (cls_arc arcs (length cs) OK c u v Hc Ia) as E. unfold cls in E. fold L in E. congruence. }
    assert (Id : In d (class_diffs cs arcs (nth c L []))).
    { unfold class_diffs. apply in_flat_map. exists (u, v). split; [exact Ia|]. simpl. rewrite Mu, Mv. simpl.
      fold d. rewrite Z0. left. reflexivity. }
    destruct (In_nth _ _ [] Id) as (t & Ht & Et). exists t. split; auto. split; auto.
    intros i Hi. rewrite Et. apply Ed. exact Hi.
Qed.

(** sum of the class deficiencies *)
Lemma zsum_linkage_deficiencies L : forall ranks, length ranks = length L ->
  zsum (linkage_deficiencies L ranks) = (Z.of_nat (length (concat L)) - Z.of_nat (length L) - Z.of_nat (list_sum ranks))%Z.
Proof.
  unfold linkage_deficiencies. induction L as [|c L IH]; intros [|r ranks] E; simpl in *; try discriminate; auto.
  rewrite IH by lia. rewrite app_length. lia.
Qed.

Lemma NoDup_nodes k : NoDup (nodes k).
Proof. unfold nodes. apply FinFun.Injective_map_NoDup; [intros a b; apply nn_inj | apply seq_NoDup]. Qed.

Lemma concat_classes_length net iso :
  let cs := fst (complex_graph net iso) in
  length (concat (linkage_classes (snd (complex_graph net iso)) (length cs))) = length cs.
Proof.
  intros cs. pose proof (complex_graph_arcs_ok net iso) as OK. fold cs in OK.
  destruct (linkage_spec _ _ OK) as (ND & Q2 & _ & _).
  transitivity (length (nodes (length cs))); [|apply nodes_length]. apply Permutation_length. apply NoDup_Permutation; auto; [apply NoDup_nodes|].
  intros y. rewrite Q2, nodes_in. reflexivity.
Qed.

Definition dummy_cert : rcert := RCert 0 [] [] [] [] 0%Z.

(** what an accepted certificate bundle says *)
Lemma certs_ok_spec net iso rc ccs : certs_ok net iso rc ccs = true ->
  let m := length (species_order net iso) in
  let L := linkage_classes (snd (complex_graph net iso)) (length (fst (complex_graph net iso))) in
  rank_checked m (length (reaction_order net)) (build_S net iso) rc = true /\
  length ccs = length L /\
  forall c, c < length L -> rank_checked (length (cdiffs net iso c)) m (cdiffs net iso c) (nth c ccs dummy_cert) = true.
Proof.
  unfold certs_ok, cdiffs. destruct (complex_graph net iso) as [cs arcs]. simpl.
  intros H. apply andb_prop in H. destruct H as [H H3]. apply andb_prop in H. destruct H as [H1 H2].
  apply Nat.eqb_eq in H2. split; auto. split; auto. intros c Hc.
  rewrite forallb_forall in H3.
  specialize (H3 (nth c (combine (linkage_classes arcs (length cs)) ccs) ([], dummy_cert))).
  rewrite combine_nth in H3 by (symmetry; exact H2). simpl in H3. apply H3.
  rewrite <- combine_nth by (symmetry; exact H2). apply nth_In. rewrite combine_length. lia.
Qed.
