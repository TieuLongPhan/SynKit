(** C11 (round 6) — clause 4 WITHOUT the gluing premise.

    Until now "the symmetry pruning never changes the set of results" rested on a premise no theorem discharged: that the
    glued result is invariant under the rule automorphisms / a function of the labelled image of the rule centre
    (C11_prune_same_results, C11_prune_same_images).  The gluing itself is modelled by C03 ([C03_Model.glue], tied to
    SynReactor._glue_graph / _node_glue by C03's correspondence) and C05 has proved, for that model, that a match moved by a
    listed automorphism of the rule glues to an observationally equal ITS ([C05_Set.glue_aut]: glue(rc, m o s^-1) =
    glue(s.rc, m) and s.rc = rc as a labelled graph) and that two writings of one match glue alike ([C05_Set.glue_obs]).
    C05's pruning step IS C11's de-duplicator: [C05_Model.prune rc raw] = [C11_Model.dedup_aut] with the symmetry list
    [C05_Model.rule_auts rc] (every node attribute of the ITS node except atom_map - the node id -, every edge attribute).

    This file imports those results (read only) and states clause 4 for C11:
      [prune_same_glue]      every raw match that glues is represented, up to observational equality of the ITS graphs, by a
                             KEPT match; kept matches are raw matches - so the set of glued ITS graphs is the same with and
                             without the pruning;
      [dedup_any_same_glue]  the same for C11's de-duplicator handed ANY list of maps each of which has the items of a
                             listed automorphism of the rule (item order free) - the form in which the symmetries reach
                             deduplicate_matches_by_automorphisms in the code (dictionaries from networkx).
    Hypotheses left: [rc_ok] (distinct node ids, one entry per bond, bonds between listed atoms) and [match_ok] (a match is
    an injective dictionary on labelled atoms) - both are evaluated by C05's correspondence ([side_okb]) on every case.
    Stdlib lists. *)
From Coq Require Import List NArith Arith.
From SK Require model.C06_Model model.C11_Model.
From SK Require proof.C11_Dedup proof.C03_Proof.
From SK Require Import model.C03_Model model.C05_Model proof.C05_Pipe proof.C05_Set proof.C05_Result proof.C05_Enum.
Import ListNotations.

(** ---------- the pruning step of the reactor ---------- *)
Theorem prune_same_glue (host : hostg) (rc : its) (raw : list mapping) :
  rc_ok rc -> (forall m, In m raw -> match_ok host rc m) ->
  (* the step is C11's de-duplicator with the rule symmetries *)
  prune rc raw = (if (1 <? length raw)%nat then C11_Model.dedup_aut (fun m => m) (rule_auts rc) raw else raw) /\
  (* nothing is invented *)
  (forall k, In k (prune rc raw) -> In k raw) /\
  (* nothing is lost: a raw match that glues has a kept representative with an observationally equal ITS *)
  (forall m T, In m raw -> glue host rc m = Some T ->
     exists k T', In k (prune rc raw) /\ glue host rc k = Some T' /\ obs_eq T T') /\
  (* hence the same set of glued graphs *)
  (forall T, In T (flat_map (glue1 host rc) raw) ->
     exists T', In T' (flat_map (glue1 host rc) (prune rc raw)) /\ obs_eq T T') /\
  (forall T', In T' (flat_map (glue1 host rc) (prune rc raw)) -> In T' (flat_map (glue1 host rc) raw)).
Proof.
  intros R Hok.
  assert (Hsub : forall k, In k (prune rc raw) -> In k raw).
  { intros k Hk. exact (C11_Dedup.subseq_in _ _ _ (prune_subseq rc raw) Hk). }
  split; [reflexivity|]. split; [exact Hsub|]. split; [|split].
  - intros m T Hm Hg. exact (kept_covers_gen host rc raw m T R Hok Hm Hg).
  - intros T HT. apply in_flat_map in HT. destruct HT as (m & Hm & HT). unfold glue1 in HT.
    destruct (glue host rc m) as [T0|] eqn:Hg; [|destruct HT]. destruct HT as [<-|[]].
    destruct (kept_covers_gen host rc raw m T0 R Hok Hm Hg) as (k & T' & Hk & Hg' & O).
    exists T'. split; [|exact O]. apply in_flat_map. exists k. split; [exact Hk|]. unfold glue1. rewrite Hg'. left. reflexivity.
  - intros T' HT. apply in_flat_map in HT. destruct HT as (k & Hk & HT). apply in_flat_map. exists k. split; [exact (Hsub k Hk) | exact HT].
Qed.

(** ---------- the de-duplicator with any listing of rule symmetries ---------- *)
(** [sym_of rc s]: the dictionary [s] has distinct keys and the items of a listed automorphism of the rule *)
Definition sym_of (rc : its) (s : mapping) : Prop :=
  NoDup (map fst s) /\ exists s', In s' (rule_auts rc) /\ same_items s s'.

Lemma act_items (s s' k : mapping) : NoDup (map fst s) -> NoDup (map fst s') -> same_items s s' ->
  C11_Model.act s k = C11_Model.act s' k.
Proof.
  intros H H' S. unfold C11_Model.act. apply map_ext. intros [p h]. simpl.
  pose proof (mget_items s s' H H' S p) as E. unfold mget in E. rewrite E. reflexivity.
Qed.

Theorem dedup_any_same_glue (host : hostg) (rc : its) (A : list mapping) (raw : list mapping) :
  rc_ok rc -> (forall m, In m raw -> match_ok host rc m) -> (forall s, In s A -> sym_of rc s) ->
  (forall k, In k (C11_Model.dedup_aut (fun m => m) A raw) -> In k raw) /\
  (forall m T, In m raw -> glue host rc m = Some T ->
     exists k T', In k (C11_Model.dedup_aut (fun m => m) A raw) /\ glue host rc k = Some T' /\ obs_eq T T').
Proof.
  intros (Rn & Rs & Rc) Hok HA.
  assert (Hsub : forall k, In k (C11_Model.dedup_aut (fun m => m) A raw) -> In k raw).
  { intros k Hk. exact (C11_Dedup.subseq_in _ _ _ (C11_Dedup.dedup_aut_subseq _ (fun m => m) A raw) Hk). }
  split; [exact Hsub|].
  intros m T Hm Hg. destruct (Hok m Hm) as (Mf & Mv & Mok).
  destruct (C11_Dedup.dedup_aut_complete _ (fun m => m) A raw m Hm) as (k & Hk & Hcase).
  destruct (Hok k (Hsub k Hk)) as (Kf & Kv & Kok). exists k.
  destruct Hcase as [E | [E | (s & Hs & E)]].
  - subst k. exists T. split; [exact Hk|]. split; [exact Hg | apply obs_eq_refl].
  - pose proof (proj1 (C11_Dedup.set_eqb_spec m k) E) as E2.
    destruct (obs_transfer _ _ T
               (glue_obs host host rc rc m k (obs_eq_refl _) (obs_eq_refl _) Rs Rs Mf Mv Kf Kv E2 Mok) Hg) as (T' & Hg' & O').
    exists T'. split; [exact Hk|]. split; [exact Hg' | exact O'].
  - destruct (HA s Hs) as (Sf & s' & Hs' & Sitems).
    assert (Sf' : NoDup (map fst s')).
    { exact (s_fst_nodup rc s' Rn Rs Hs'). }
    rewrite (act_items s s' k Sf Sf' Sitems) in E.
    pose proof (proj1 (C11_Dedup.set_eqb_spec m (C11_Model.act s' k)) E) as E2.
    destruct (obs_transfer _ _ T
                (glue_obs host host rc rc m (C11_Model.act s' k) (obs_eq_refl _) (obs_eq_refl _) Rs Rs Mf Mv
                   (act_nodup_fst _ s' k Rn Rs Rc Hs' Kf)
                   (eq_ind_r (fun l => NoDup l) Kv (act_snd s' k)) E2 Mok) Hg) as (T3 & Hg3 & O3).
    pose proof (glue_aut rc s' Rn Rs Rc Hs' host k Kf Kv Kok) as Ha.
    rewrite Hg3 in Ha. destruct (glue host rc k) as [T'|]; [|destruct Ha].
    exists T'. split; [exact Hk|]. split; [reflexivity|]. eapply obs_eq_trans; [exact O3 | apply obs_eq_sym; exact Ha].
Qed.

Lemma rev_syms_ok (rc : its) : rc_ok rc -> forall s, In s (map (@rev (N * N)) (rule_auts rc)) -> sym_of rc s.
Proof.
  intros (Rn & Rs & _) s Hs. apply in_map_iff in Hs. destruct Hs as (s' & <- & Hs'). split.
  - rewrite map_rev. apply NoDup_rev. exact (s_fst_nodup rc s' Rn Rs Hs').
  - exists s'. split; [exact Hs'|]. intros ph. symmetry. apply in_rev.
Qed.

(** ---------- non-vacuity: olefin metathesis on C=C.C=C (C05's example objects) ---------- *)
From SK Require Import proof.C05_Examples.
#[local] Instance glue_thr : Thr := thr_of None.

Definition mt_rc : its := p_rc mt_p.
Definition mt_raw : list mapping := raw_of 0%N mt_host mt_p.
(** the symmetries as networkx delivers them to the de-duplicator: dictionaries whose item order is not the model's *)
Definition mt_syms_rev : list mapping := map (@rev (N * N)) (rule_auts mt_rc).

Lemma mt_side : side_ok mt_host mt_p.
Proof. apply side_okb_ok. vm_compute. reflexivity. Qed.

Lemma mt_rc_ok : rc_ok mt_rc.
Proof. split; [exact (so_rc_nodup _ _ mt_side)|]. split; [exact (so_rc_simple _ _ mt_side) | exact (so_rc_closed _ _ mt_side)]. Qed.

Lemma mt_raw_ok : forall m, In m mt_raw -> match_ok mt_host mt_rc m.
Proof.
  unfold mt_raw, mt_rc. intros m Hm. pose proof (raw_is_mono mt_host mt_p m mt_side Hm) as H.
  exact (mono_facts mt_host mt_p m mt_side H).
Qed.

Lemma mt_syms_ok : forall s, In s mt_syms_rev -> sym_of mt_rc s.
Proof. exact (rev_syms_ok mt_rc mt_rc_ok). Qed.

Example ex_prune_same_glue :
  rc_ok mt_rc /\ (forall m, In m mt_raw -> match_ok mt_host mt_rc m) /\ (forall s, In s mt_syms_rev -> sym_of mt_rc s) /\
  length (rule_auts mt_rc) = 4%nat /\ length mt_raw = 8%nat /\ length (prune mt_rc mt_raw) = 2%nat /\
  length (flat_map (glue1 mt_host mt_rc) mt_raw) = 8%nat /\ length (flat_map (glue1 mt_host mt_rc) (prune mt_rc mt_raw)) = 2%nat /\
  mt_syms_rev <> rule_auts mt_rc /\ length (C11_Model.dedup_aut (fun m => m) mt_syms_rev mt_raw) = 2%nat.
Proof.
  split; [exact mt_rc_ok|]. split; [exact mt_raw_ok|]. split; [exact mt_syms_ok|].
  vm_compute. repeat split. discriminate.
Qed.
