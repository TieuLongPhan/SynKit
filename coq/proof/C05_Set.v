(** C05 — gluing seen as a function of the GRAPHS (labels and adjacency as functions) and of the match as a
    SET of pairs: the glued ITS does not depend on the insertion order of substrate, rule or match; matches that
    differ by an automorphism of the rule glue to the same ITS.  Built on the pointwise characterisation of the
    glue in proof/C03_Proof.v. Stdlib lists. *)
From Coq Require Import List ZArith Bool Lia.
From SK Require Import lib.LGraph lib.Mono.
From SK Require Import model.C03_Model proof.C03_Proof proof.C03_Glue proof.C03_Iso.
From SK Require Import model.C05_Model proof.C05_Proof proof.C05_Glue.
Import ListNotations.
Local Open Scope Z_scope.



(** observational equality of list graphs: the same label and adjacency FUNCTIONS *)
Definition obs_eq {A B} (g g' : lgraph A B) : Prop :=
  (forall n, label g' n = label g n) /\ (forall a b, LGraph.adj g' a b = LGraph.adj g a b).

Lemma obs_eq_refl {A B} (g : lgraph A B) : obs_eq g g.
Proof. split; reflexivity. Qed.
Lemma obs_eq_sym {A B} (g g' : lgraph A B) : obs_eq g g' -> obs_eq g' g.
Proof. intros [H1 H2]. split; intros; symmetry; auto. Qed.
Lemma obs_eq_trans {A B} (g1 g2 g3 : lgraph A B) : obs_eq g1 g2 -> obs_eq g2 g3 -> obs_eq g1 g3.
Proof. intros [A1 A2] [B1 B2]. split; intros; [rewrite B1, A1 | rewrite B2, A2]; reflexivity. Qed.

Definition same_items (m m' : mapping) : Prop := forall ph, In ph m <-> In ph m'.

Lemma mget_in (m : mapping) u h : NoDup (map fst m) -> (mget m u = Some h <-> In (u, h) m).
Proof.
  intros Hnd. unfold mget. split; [apply assoc_in | apply assoc_nodup_in; exact Hnd].
Qed.

Lemma mget_items (m m' : mapping) : NoDup (map fst m) -> NoDup (map fst m') -> same_items m m' ->
  forall u, mget m' u = mget m u.
Proof.
  intros H H' S u. destruct (mget m u) as [h|] eqn:E.
  - apply (mget_in m' u h H'). apply S. apply (mget_in m u h H). exact E.
  - destruct (mget m' u) as [h'|] eqn:E'; [|reflexivity].
    apply (mget_in m' u h' H') in E'. apply S in E'. apply (mget_in m u h' H) in E'. congruence.
Qed.

Lemma hits_items (m m' : mapping) e a b : (forall u, mget m' u = mget m u) -> hits m' e a b = hits m e a b.
Proof. intros E. destruct e as [[u v] x]. unfold hits, img. rewrite !E. reflexivity. Qed.

(** the template edge that lands on a host pair, read off the rule's adjacency function *)
Lemma find_hit_transfer (m m' : mapping) (es es' : list (N * N * iedge)) a b x :
  (forall u, mget m' u = mget m u) ->
  simple_edgesb es = true -> distinct_images m' es' ->
  (forall u v, find_edge u v es' = find_edge u v es) ->
  find_hit m es a b = Some x -> find_hit m' es' a b = Some x.
Proof.
  intros Em Hs Hd Ea Hf.
  destruct (find_hit_in m es a b x Hf) as ([[u v] y] & Hin & Hh & Hx). simpl in Hx. subst y.
  pose proof (simple_in_find es u v x (simpleP_of_b es Hs) Hin) as Hadj.
  rewrite <- Ea in Hadj. destruct (find_edge_in es' u v x Hadj) as (p & q & Hin' & Hpq).
  change x with (snd (p, q, x)). apply find_hit_first; [exact Hd | exact Hin' |].
  rewrite (hits_items m m' _ a b Em).
  unfold hits, img in *. unfold peq in Hpq. apply orb_prop in Hpq.
  destruct Hpq as [Hpq|Hpq]; apply andb_prop in Hpq; destruct Hpq as [E1 E2]; apply N.eqb_eq in E1, E2; subst p q.
  - exact Hh.
  - destruct (mget m v) as [hv|]; [|destruct (mget m u); discriminate].
    destruct (mget m u) as [hu|]; [|discriminate]. rewrite peq_sym1. exact Hh.
Qed.

Lemma find_hit_same (m m' : mapping) (es es' : list (N * N * iedge)) a b :
  (forall u, mget m' u = mget m u) ->
  simple_edgesb es = true -> simple_edgesb es' = true ->
  distinct_images m es -> distinct_images m' es' ->
  (forall u v, find_edge u v es' = find_edge u v es) ->
  find_hit m' es' a b = find_hit m es a b.
Proof.
  intros Em Hs Hs' Hd Hd' Ea.
  destruct (find_hit m es a b) as [x|] eqn:E.
  - exact (find_hit_transfer m m' es es' a b x Em Hs Hd' Ea E).
  - destruct (find_hit m' es' a b) as [y|] eqn:E'; [|reflexivity].
    assert (find_hit m es a b = Some y)
      by exact (find_hit_transfer m' m es' es a b y (fun u => eq_sym (Em u)) Hs' Hd (fun u v => eq_sym (Ea u v)) E').
    congruence.
Qed.

(** when the edge fold fails, some template edge lands on a host bond whose merged order is not integral *)
Lemma fold_glue_none_hit m es : forall T, distinct_images m es ->
  fold_left (glue_edge m) es (Some T) = None ->
  exists a b x, find_hit m es a b = Some x /\ merge (LGraph.adj T a b) x = None.
Proof.
  induction es as [|e r IH]; cbn [fold_left find_hit distinct_images]; intros T Hd H; [discriminate|].
  destruct Hd as [Hd1 Hd2].
  destruct (glue_edge m (Some T) e) as [T1|] eqn:E.
  - destruct (IH T1 Hd2 H) as (a & b & x & Hf & Hm). exists a, b, x.
    destruct (hits m e a b) eqn:Eh; [rewrite (Hd1 a b Eh) in Hf; discriminate|].
    split; [exact Hf|]. pose proof (glue_edge_step m T e T1 a b E) as Hs. rewrite Eh in Hs. rewrite <- Hs. exact Hm.
  - destruct e as [[u v] x]. simpl in E.
    destruct (mget m u) as [hu|] eqn:Eu; [|discriminate]. destruct (mget m v) as [hv|] eqn:Ev; [|discriminate].
    destruct (LGraph.adj T hu hv) as [y|] eqn:Ea; [|discriminate].
    destruct (Z.eqb (eG x) 0) eqn:E0; [|discriminate]. destruct (Z.odd (eH y + eH x)) eqn:Eo; [|discriminate].
    exists hu, hv, x. unfold hits, img. rewrite Eu, Ev, peq_refl. split; [reflexivity|].
    rewrite Ea. simpl. rewrite E0, Eo. reflexivity.
Qed.

Section GlueObs.
  Variables (host host' : hostg) (rc rc' : its) (m m' : mapping).
  Hypothesis Hh : obs_eq host host'.
  Hypothesis Hr : obs_eq rc rc'.
  Hypothesis Hs : simple_edgesb (gedges rc) = true.
  Hypothesis Hs' : simple_edgesb (gedges rc') = true.
  Hypothesis Hf : NoDup (map fst m).
  Hypothesis Hv : NoDup (map snd m).
  Hypothesis Hf' : NoDup (map fst m').
  Hypothesis Hv' : NoDup (map snd m').
  Hypothesis Hi : same_items m m'.
  Hypothesis Hok : forall p h, In (p, h) m -> (exists pn, label rc p = Some pn) /\ (exists hn, label host h = Some hn).

  Let T1 := glue_nodes (its_of_host host) rc m.
  Let T1' := glue_nodes (its_of_host host') rc' m'.

  Lemma obs_T1_adj a b : LGraph.adj T1' a b = LGraph.adj T1 a b.
  Proof.
    unfold T1, T1', LGraph.adj. rewrite !glue_nodes_edges.
    change (LGraph.adj (its_of_host host') a b = LGraph.adj (its_of_host host) a b).
    rewrite !adj_its_of_host, (proj2 Hh). reflexivity.
  Qed.

  Lemma obs_T1_label n : label T1' n = label T1 n.
  Proof.
    unfold T1, T1'. destruct (in_dec N.eq_dec n (map snd m)) as [I|NI].
    - apply in_map_iff in I. destruct I as ([p h] & E & I). simpl in E. subst h.
      destruct (Hok p n I) as ((pn & Hp) & (hn & Hn)).
      rewrite (glue_nodes_at (its_of_host host) rc m p n pn (IN hn hn 0 None) Hv I Hf Hp)
        by (rewrite label_its_of_host, Hn; reflexivity).
      apply (glue_nodes_at (its_of_host host') rc' m' p n pn (IN hn hn 0 None) Hv' (proj1 (Hi (p, n)) I) Hf').
      + rewrite (proj1 Hr). exact Hp.
      + rewrite label_its_of_host, (proj1 Hh), Hn. reflexivity.
    - rewrite (glue_nodes_other (its_of_host host) rc m n NI).
      rewrite glue_nodes_other.
      + rewrite !label_its_of_host, (proj1 Hh). reflexivity.
      + intros I. apply NI. apply in_map_iff in I. destruct I as ([p h] & E & I). simpl in E. subst h.
        apply in_map_iff. exists (p, n). split; [reflexivity | apply Hi; exact I].
  Qed.

  Lemma obs_find_hit a b : find_hit m' (gedges rc') a b = find_hit m (gedges rc) a b.
  Proof.
    apply find_hit_same; auto.
    - apply mget_items; assumption.
    - apply distinct_images_of; assumption.
    - apply distinct_images_of; assumption.
    - intros u v. exact (proj2 Hr u v).
  Qed.

  (** the glued ITS is determined by the graphs as functions and the match as a set of pairs; so is failure *)
  Lemma glue_obs :
    match glue host rc m, glue host' rc' m' with
    | Some T, Some T' => obs_eq T T'
    | None, None => True
    | _, _ => False
    end.
  Proof.
    unfold glue. fold T1. fold T1'.
    pose proof (distinct_images_of m (gedges rc) Hv Hs) as D.
    pose proof (distinct_images_of m' (gedges rc') Hv' Hs') as D'.
    destruct (fold_left (glue_edge m) (gedges rc) (Some T1)) as [T|] eqn:E;
      destruct (fold_left (glue_edge m') (gedges rc') (Some T1')) as [T'|] eqn:E'.
    - split.
      + intros n. unfold label. rewrite (fold_glue_nodes _ _ _ _ E), (fold_glue_nodes _ _ _ _ E'). apply obs_T1_label.
      + intros a b. pose proof (fold_glue_spec m (gedges rc) T1 T D E a b) as S.
        pose proof (fold_glue_spec m' (gedges rc') T1' T' D' E' a b) as S'.
        rewrite obs_find_hit in S'. rewrite obs_T1_adj in S'.
        destruct (find_hit m (gedges rc) a b) as [x|].
        * destruct S as (r & Hm & Ha). destruct S' as (r' & Hm' & Ha'). rewrite Ha, Ha'. congruence.
        * rewrite S, S'. reflexivity.
    - destruct (fold_glue_none_hit m' (gedges rc') T1' D' E') as (a & b & x & Hfh & Hm).
      pose proof (fold_glue_spec m (gedges rc) T1 T D E a b) as S.
      rewrite obs_find_hit in Hfh. rewrite Hfh in S. rewrite obs_T1_adj in Hm.
      destruct S as (r & Hm' & _). congruence.
    - destruct (fold_glue_none_hit m (gedges rc) T1 D E) as (a & b & x & Hfh & Hm).
      pose proof (fold_glue_spec m' (gedges rc') T1' T' D' E' a b) as S.
      rewrite obs_find_hit, Hfh in S. rewrite obs_T1_adj in S.
      destruct S as (r & Hm' & _). congruence.
    - exact Logic.I.
  Qed.
End GlueObs.

Lemma lN_eqb_eq a : forall b, lN_eqb a b = true -> a = b.
Proof.
  induction a as [|x a IH]; intros [|y b]; simpl; try discriminate; [reflexivity|].
  intros H. apply andb_prop in H. destruct H as [H1 H2]. apply N.eqb_eq in H1. subst. f_equal. apply IH. exact H2.
Qed.
Lemma nattr_eqb_eq a b : nattr_eqb a b = true -> a = b.
Proof.
  destruct a as [e r h c n], b as [e' r' h' c' n']. unfold nattr_eqb. cbn [a_el a_aro a_hc a_ch a_nb]. intros H.
  apply andb_prop in H. destruct H as [H Hn]. apply andb_prop in H. destruct H as [H Hc].
  apply andb_prop in H. destruct H as [H Hh]. apply andb_prop in H. destruct H as [He Hr].
  apply N.eqb_eq in He. apply Bool.eqb_prop in Hr. apply Z.eqb_eq in Hh, Hc. apply lN_eqb_eq in Hn. subst. reflexivity.
Qed.
Lemma inode_eqb_eq a b : inode_eqb a b = true -> a = b.
Proof.
  destruct a as [g h c p], b as [g' h' c' p']. unfold inode_eqb. cbn [iG iH i_hc i_hp]. intros H.
  apply andb_prop in H. destruct H as [H Hp]. apply andb_prop in H. destruct H as [H Hc].
  apply andb_prop in H. destruct H as [Hg Hh].
  apply nattr_eqb_eq in Hg, Hh. apply Z.eqb_eq in Hc. subst.
  destruct p as [l|], p' as [l'|]; simpl in Hp; try discriminate; [apply lN_eqb_eq in Hp; subst|]; reflexivity.
Qed.
Lemma oinode_eqb_eq a b : oinode_eqb a b = true -> a = b.
Proof. destruct a, b; simpl; try discriminate; [intros H; apply inode_eqb_eq in H; subst|]; reflexivity. Qed.
Lemma iedge_eqb_eq x y : iedge_eqb x y = true -> x = y.
Proof.
  destruct x as [[a b] c], y as [[a' b'] c']. unfold iedge_eqb, eG, eH, eS; simpl. intros H.
  repeat (apply andb_prop in H; destruct H as [H ?]). apply Z.eqb_eq in H, H1, H0. subst. reflexivity.
Qed.

Section AutSpec.
  Variable rc : its.
  Hypothesis Hnd : NoDup (node_ids rc).
  Hypothesis Hloop : forall u, LGraph.adj rc u u = None.

  Let V := valid (node_ids rc) (label rc) (label rc) (LGraph.adj rc) (LGraph.adj rc) oinode_eqb iedge_eqb true.

  Lemma valid_edges m : V m ->
    forall p h p' h', In (p, h) m -> In (p', h') m -> LGraph.adj rc h h' = LGraph.adj rc p p'.
  Proof.
    induction 1 as [|p0 h0 acc Hv IH Hin Hok]; [intros ? ? ? ? []|].
    unfold ok in Hok. apply andb_prop in Hok. destruct Hok as [_ He]. rewrite forallb_forall in He.
    assert (Hnew : forall p' h', In (p', h') acc -> LGraph.adj rc h0 h' = LGraph.adj rc p0 p').
    { intros p' h' I. specialize (He _ I). unfold edge_ok in He. simpl in He.
      destruct (LGraph.adj rc p0 p') as [b|], (LGraph.adj rc h0 h') as [b'|]; try discriminate; [|reflexivity].
      apply iedge_eqb_eq in He. subst. reflexivity. }
    intros p h p' h' [E|I] [E'|I'].
    - inversion E; inversion E'; subst. rewrite !Hloop. reflexivity.
    - inversion E; subst. apply Hnew. exact I'.
    - inversion E'; subst. rewrite (adj_sym rc h _), (adj_sym rc p _). apply Hnew. exact I.
    - eapply IH; eauto.
  Qed.

  Lemma rule_auts_spec s : In s (rule_auts rc) ->
    map fst s = rev (node_ids rc) /\ NoDup (map snd s) /\
    (forall p h, In (p, h) s -> In h (node_ids rc) /\ label rc h = label rc p) /\
    (forall p h p' h', In (p, h) s -> In (p', h') s -> LGraph.adj rc h h' = LGraph.adj rc p p').
  Proof.
    unfold rule_auts. rewrite monos'_eq. intros Hin.
    destruct (monos_only_such _ _ _ _ _ _ _ _ _ _ Hin) as (hs & Hl & E & Hv).
    destruct (valid_pointwise Hv) as (P1 & P2 & _).
    split; [|split; [exact P2|split]].
    - subst s. rewrite map_rev. f_equal. clear -Hl. revert hs Hl.
      induction (node_ids rc) as [|x l IH]; intros [|y hs] Hl; simpl in *; try discriminate; [reflexivity|].
      f_equal. apply IH. lia.
    - intros p h I. destruct (P1 p h I) as [Q1 Q2]. split; [exact Q1|]. apply oinode_eqb_eq. exact Q2.
    - apply valid_edges. exact Hv.
  Qed.
End AutSpec.

(** the automorphism listed as [s], as a function on node ids (sigma[p] of the Python code) *)
Definition sfun (s : mapping) (p : N) : N := match assoc p s with Some q => q | None => p end.

Lemma act_mv s k : C11_Model.act s k = mv (sfun s) (fun h => h) k.
Proof. reflexivity. Qed.

Lemma relabel_id {A B} (g : lgraph A B) : relabel (fun x => x) g = g.
Proof.
  destruct g as [ns es]. unfold relabel; simpl. f_equal.
  - rewrite <- (map_id ns) at 2. apply map_ext. intros [k a]. reflexivity.
  - rewrite <- (map_id es) at 2. apply map_ext. intros [[a b] x]. reflexivity.
Qed.

Lemma assoc_none_notin {V} (l : list (N * V)) k : ~ In k (map fst l) -> assoc k l = None.
Proof.
  induction l as [|[k' v] r IH]; simpl; [reflexivity|]. intros H.
  destruct (N.eqb_spec k k') as [->|Hne]; [exfalso; apply H; left; reflexivity | apply IH; tauto].
Qed.

Lemma nodup_snd_inj (s : mapping) a b h : NoDup (map snd s) -> In (a, h) s -> In (b, h) s -> a = b.
Proof.
  induction s as [|[p q] r IH]; simpl; [intros _ []|]. intros Hnd. inversion Hnd as [|? ? Hn1 Hn2]; subst.
  intros [E|I] [E'|I'].
  - congruence.
  - inversion E; subst. exfalso. apply Hn1. change h with (snd (b, h)). apply in_map. exact I'.
  - inversion E'; subst. exfalso. apply Hn1. change h with (snd (a, h)). apply in_map. exact I.
  - auto.
Qed.

Lemma existsb_peq_relabel {B} (f : N -> N) (Hf : inj f) (es : list (N * N * B)) a b :
  existsb (fun e : N * N * B => let '(u, v, _) := e in peq u v (f a) (f b))
          (map (fun e : N * N * B => let '(a, b, x) := e in (f a, f b, x)) es)
  = existsb (fun e : N * N * B => let '(u, v, _) := e in peq u v a b) es.
Proof.
  induction es as [|[[u v] y] r IH]; simpl; [reflexivity|].
  unfold peq at 1 3. rewrite !(inj_eqb f _ _ Hf), IH. reflexivity.
Qed.

Lemma simple_relabel {B} (f : N -> N) (Hf : inj f) (es : list (N * N * B)) :
  simple_edgesb (map (fun e : N * N * B => let '(a, b, x) := e in (f a, f b, x)) es) = simple_edgesb es.
Proof.
  induction es as [|[[a b] x] r IH]; simpl; [reflexivity|].
  rewrite (inj_eqb f a b Hf), IH, (existsb_peq_relabel f Hf r a b). reflexivity.
Qed.

Section AutGlue.
  Variable rc : its.
  Variable s : mapping.
  Hypothesis Hnd : NoDup (node_ids rc).
  Hypothesis Hsimple : simple_edgesb (gedges rc) = true.
  Hypothesis Hclosed : forall a b x, In (a, b, x) (gedges rc) -> In a (node_ids rc) /\ In b (node_ids rc).
  Hypothesis Hs : In s (rule_auts rc).

  Lemma adj_nodes a b x : LGraph.adj rc a b = Some x -> In a (node_ids rc) /\ In b (node_ids rc).
  Proof.
    unfold LGraph.adj. intros H. destruct (find_edge_in _ _ _ _ H) as (p & q & I & Hp).
    destruct (Hclosed p q x I) as [Ip Iq]. unfold peq in Hp. apply orb_prop in Hp.
    destruct Hp as [Hp|Hp]; apply andb_prop in Hp; destruct Hp as [E1 E2]; apply N.eqb_eq in E1, E2; subst; tauto.
  Qed.

  Lemma no_loop u : LGraph.adj rc u u = None.
  Proof.
    destruct (LGraph.adj rc u u) as [x|] eqn:E; [|reflexivity]. exfalso.
    unfold LGraph.adj in E. destruct (find_edge_in _ _ _ _ E) as (p & q & I & Hp).
    pose proof (simple_edges_ne (gedges rc) p q x Hsimple I) as Hne.
    unfold peq in Hp. apply orb_prop in Hp.
    destruct Hp as [Hp|Hp]; apply andb_prop in Hp; destruct Hp as [E1 E2]; apply N.eqb_eq in E1, E2; subst; congruence.
  Qed.

  Let spec := rule_auts_spec rc no_loop s Hs.

  Lemma s_fst_nodup : NoDup (map fst s).
  Proof. rewrite (proj1 spec). apply NoDup_rev. exact Hnd. Qed.

  Lemma sfun_in p h : In (p, h) s -> sfun s p = h.
  Proof. intros I. unfold sfun. rewrite (assoc_nodup_in p s h s_fst_nodup I). reflexivity. Qed.

  Lemma sfun_out p : ~ In p (node_ids rc) -> sfun s p = p.
  Proof.
    intros H. unfold sfun. rewrite assoc_none_notin; [reflexivity|].
    rewrite (proj1 spec). intros I. apply H. apply in_rev. exact I.
  Qed.

  Lemma s_total p : In p (node_ids rc) -> exists h, In (p, h) s.
  Proof.
    intros I. assert (I' : In p (map fst s)) by (rewrite (proj1 spec); apply in_rev in I; exact I).
    apply in_map_iff in I'. destruct I' as ([p' h] & E & I'). simpl in E. subst. exists h. exact I'.
  Qed.

  Lemma sfun_nodes p : In p (node_ids rc) -> In (sfun s p) (node_ids rc).
  Proof.
    intros I. destruct (s_total p I) as (h & Ih). rewrite (sfun_in p h Ih).
    exact (proj1 (proj1 (proj2 (proj2 spec)) p h Ih)).
  Qed.

  Lemma sfun_label u : label rc (sfun s u) = label rc u.
  Proof.
    destruct (in_dec N.eq_dec u (node_ids rc)) as [I|NI]; [|rewrite (sfun_out u NI); reflexivity].
    destruct (s_total u I) as (h & Ih). rewrite (sfun_in u h Ih).
    exact (proj2 (proj1 (proj2 (proj2 spec)) u h Ih)).
  Qed.

  Lemma adj_out u v : ~ In u (node_ids rc) -> LGraph.adj rc u v = None.
  Proof.
    intros H. destruct (LGraph.adj rc u v) as [x|] eqn:E; [|reflexivity]. exfalso. apply H. exact (proj1 (adj_nodes u v x E)).
  Qed.

  Lemma sfun_adj u v : LGraph.adj rc (sfun s u) (sfun s v) = LGraph.adj rc u v.
  Proof.
    destruct (in_dec N.eq_dec u (node_ids rc)) as [Iu|NIu].
    - destruct (in_dec N.eq_dec v (node_ids rc)) as [Iv|NIv].
      + destruct (s_total u Iu) as (hu & Hu). destruct (s_total v Iv) as (hv & Hv).
        rewrite (sfun_in u hu Hu), (sfun_in v hv Hv). exact (proj2 (proj2 (proj2 spec)) u hu v hv Hu Hv).
      + rewrite (sfun_out v NIv). rewrite (adj_sym rc (sfun s u) v), (adj_sym rc u v), !(adj_out v _ NIv). reflexivity.
    - rewrite (sfun_out u NIu), !(adj_out u _ NIu). reflexivity.
  Qed.

  Lemma sfun_inj : inj (sfun s).
  Proof.
    intros a b E.
    destruct (in_dec N.eq_dec a (node_ids rc)) as [Ia|NIa]; destruct (in_dec N.eq_dec b (node_ids rc)) as [Ib|NIb].
    - destruct (s_total a Ia) as (ha & Ha). destruct (s_total b Ib) as (hb & Hb).
      rewrite (sfun_in a ha Ha), (sfun_in b hb Hb) in E. subst hb.
      exact (nodup_snd_inj s a b ha (proj1 (proj2 spec)) Ha Hb).
    - exfalso. apply NIb. rewrite (sfun_out b NIb) in E. rewrite <- E. apply sfun_nodes. exact Ia.
    - exfalso. apply NIa. rewrite (sfun_out a NIa) in E. rewrite E. apply sfun_nodes. exact Ib.
    - rewrite (sfun_out a NIa), (sfun_out b NIb) in E. exact E.
  Qed.

  Lemma sfun_surj n : exists u, sfun s u = n.
  Proof.
    destruct (in_dec N.eq_dec n (node_ids rc)) as [I|NI]; [|exists n; apply sfun_out; exact NI].
    assert (Hincl : incl (node_ids rc) (map snd s)).
    { apply NoDup_length_incl.
      - exact (proj1 (proj2 spec)).
      - rewrite map_length. rewrite <- (map_length fst s), (proj1 spec), rev_length. lia.
      - intros h Ih. apply in_map_iff in Ih. destruct Ih as ([p h'] & E & Ih). simpl in E. subst.
        exact (proj1 (proj1 (proj2 (proj2 spec)) p h Ih)). }
    specialize (Hincl n I). apply in_map_iff in Hincl. destruct Hincl as ([p h] & E & Ip). simpl in E. subst.
    exists p. apply sfun_in. exact Ip.
  Qed.

  (** renumbering the rule by one of its automorphisms gives the same graph *)
  Lemma relabel_aut_obs : obs_eq (relabel (sfun s) rc) rc.
  Proof.
    split.
    - intros n. destruct (sfun_surj n) as (u & <-). rewrite (label_relabel _ _ (sfun s) sfun_inj rc u). apply sfun_label.
    - intros a b. destruct (sfun_surj a) as (u & <-). destruct (sfun_surj b) as (v & <-).
      rewrite (adj_relabel _ _ (sfun s) sfun_inj rc u v). apply sfun_adj.
  Qed.

  (** a match moved by a rule automorphism glues to the same ITS *)
  Lemma glue_aut (host : hostg) (k : mapping) :
    NoDup (map fst k) -> NoDup (map snd k) ->
    (forall p h, In (p, h) k -> (exists pn, label rc p = Some pn) /\ (exists hn, label host h = Some hn)) ->
    match glue host rc k, glue host rc (C11_Model.act s k) with
    | Some T, Some T' => obs_eq T T'
    | None, None => True
    | _, _ => False
    end.
  Proof.
    intros Hf Hv Hok.
    pose proof (glue_equivariant (sfun s) (fun h => h) sfun_inj (fun a b E => E) host rc k) as Heq.
    rewrite !relabel_id, <- act_mv in Heq.
    assert (Hmap : option_map (relabel (fun h : N => h)) (glue host rc k) = glue host rc k)
      by (destruct (glue host rc k); simpl; [rewrite relabel_id|]; reflexivity).
    rewrite Hmap in Heq. rewrite <- Heq.
    assert (Af : NoDup (map fst (C11_Model.act s k))).
    { rewrite act_mv. unfold mv. rewrite map_map. simpl. rewrite <- (map_map fst (sfun s)).
      apply FinFun.Injective_map_NoDup; [exact sfun_inj | exact Hf]. }
    assert (Av : NoDup (map snd (C11_Model.act s k))) by (rewrite act_mv; unfold mv; rewrite map_map; exact Hv).
    apply (glue_obs host host (relabel (sfun s) rc) rc (C11_Model.act s k) (C11_Model.act s k)
             (obs_eq_refl _) relabel_aut_obs); try assumption.
    - unfold relabel; simpl. rewrite (simple_relabel (sfun s) sfun_inj). exact Hsimple.
    - intros ph. tauto.
    - intros p h I. rewrite act_mv in I. unfold mv in I. apply in_map_iff in I. destruct I as ([p0 h0] & E & I).
      simpl in E. inversion E; subst. destruct (Hok p0 h I) as ((pn & Hp) & Hh). split; [|exact Hh].
      exists pn. rewrite (label_relabel _ _ (sfun s) sfun_inj rc p0). exact Hp.
  Qed.
End AutGlue.

