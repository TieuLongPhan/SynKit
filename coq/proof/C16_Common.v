(** C16 — lemmas shared by the round trips: folds (over binds, with an invariant over the items processed so far,
    inserting under fresh keys), the node classes of the bipartite importer, rebuilding a network by a sequence of
    [add] calls with explicit distinct ids. *)
From stdpp Require Import gmap strings sets pretty sorting.
From SK Require Import lib.Tok model.C15_Model proof.C15_Proof model.C16_Model proof.C16_Defs.
Local Open Scope string_scope.
Local Open Scope list_scope.

Lemma foldl_bind {A B C} (f : A → C → A) (g : B → list C) (l : list B) : ∀ a,
  foldl f a (l ≫= g) = foldl (λ a x, foldl f a (g x)) a l.
Proof. induction l as [|x l IH]; intros a; [done|]. cbn [mbind list_bind]. rewrite foldl_app. apply IH. Qed.

Lemma foldl_ext_in {A B} (f g : A → B → A) (l : list B) : (∀ a x, x ∈ l → f a x = g a x) → ∀ a, foldl f a l = foldl g a l.
Proof.
  induction l as [|x l IH]; intros Hfg a; [done|]. simpl. rewrite Hfg by left. apply IH. intros ???. apply Hfg. by right.
Qed.

Lemma elem_of_snoc {A} (l : list A) x y : y ∈ l ++ [x] ↔ y ∈ l ∨ y = x.
Proof. by rewrite elem_of_app, elem_of_list_singleton. Qed.
Lemma elem_of_snoc_l {A} (l : list A) x y : y ∈ l → y ∈ l ++ [x].
Proof. intros Hy. apply elem_of_snoc. by left. Qed.
Lemma elem_of_snoc_r {A} (l : list A) x : x ∈ l ++ [x].
Proof. apply elem_of_snoc. by right. Qed.

Lemma foldl_snoc_ind {A B} (f : A → B → A) (P : list B → A → Prop) (Q : list B → Prop) :
  (∀ l l', Q (l ++ l') → Q l) →
  (∀ done a x, Q (done ++ [x]) → P done a → P (done ++ [x]) (f a x)) →
  ∀ l done a, Q (done ++ l) → P done a → P (done ++ l) (foldl f a l).
Proof.
  intros HQ Hstep. induction l as [|x l IH]; intros done a Hq HP; [by rewrite app_nil_r|].
  cbn [foldl]. rewrite cons_middle, (assoc_L (++)) in *. apply IH; [done|]. apply Hstep; [by eapply HQ|done].
Qed.

Lemma omap_ext_in {A B} (f g : A → option B) (l : list A) : (∀ x, x ∈ l → f x = g x) → omap f l = omap g l.
Proof.
  induction l as [|x l IH]; intros Hfg; [done|]. cbn. rewrite (Hfg x) by (by left).
  rewrite IH; [done|]. intros y Hy. apply Hfg. by right.
Qed.

Lemma dom_filter_fmap {K A} `{Countable K} (P : K * A → Prop) `{∀ x, Decision (P x)} (f : A → A) (m : gmap K A) :
  (∀ k x, m !! k = Some x → (P (k, f x) ↔ P (k, x))) → dom (filter P (f <$> m)) = dom (filter P m).
Proof. intros HP. rewrite map_filter_fmap, dom_fmap_L. f_equal. by apply map_filter_ext. Qed.

Definition untagged (nd : bnode) : Prop := bn_kind nd ≠ Some "species" ∧ bn_kind nd ≠ Some "reaction".
Definition sp_node (ifl : iflags) (p : nid * bnode) : Prop :=
  bn_kind p.2 = Some "species" ∨ (untagged p.2 ∧ starts_with (i_sp ifl) p.1 = true).
Definition rx_node (ifl : iflags) (p : nid * bnode) : Prop :=
  bn_kind p.2 = Some "reaction" ∨ (untagged p.2 ∧ starts_with (i_sp ifl) p.1 = false ∧ starts_with (i_rp ifl) p.1 = true).
Global Instance sp_node_dec ifl p : Decision (sp_node ifl p).
Proof. unfold sp_node, untagged. apply _. Defined.
Global Instance rx_node_dec ifl p : Decision (rx_node ifl p).
Proof. unfold rx_node, untagged. apply _. Defined.

Lemma classify_eq ifl G : classify ifl G =
  let sp := dom (filter (sp_node ifl) (b_nodes G)) in
  let rx := dom (filter (rx_node ifl) (b_nodes G)) in
  if decide (sp = ∅ ∧ rx = ∅) then (set_map fst (dom (b_arcs G)), set_map snd (dom (b_arcs G))) else (sp, rx).
Proof. reflexivity. Qed.

Lemma classify_fmap ifl (f : bnode → bnode) G arcs : dom arcs = dom (b_arcs G) →
  (∀ n nd, b_nodes G !! n = Some nd → sp_node ifl (n, f nd) ↔ sp_node ifl (n, nd)) →
  (∀ n nd, b_nodes G !! n = Some nd → rx_node ifl (n, f nd) ↔ rx_node ifl (n, nd)) →
  classify ifl (BGraph (f <$> b_nodes G) arcs) = classify ifl G.
Proof.
  intros Ha Hsp Hrx. rewrite !classify_eq. cbn [b_nodes b_arcs].
  by rewrite Ha, (dom_filter_fmap (sp_node ifl) f), (dom_filter_fmap (rx_node ifl) f).
Qed.

Section insert_fresh.
  Context {K V B : Type} `{Countable K} (f : gmap K V → B → gmap K V) (key : B → K) (val : B → V).

  Lemma foldl_insert_fresh (l : list B) : NoDup (key <$> l) →
    (∀ m x, x ∈ l → m !! key x = None → f m x = <[ key x := val x ]> m) →
    ∀ m, (∀ x, x ∈ l → m !! key x = None) → foldl f m l = list_to_map ((λ x, (key x, val x)) <$> l) ∪ m.
  Proof.
    induction l as [|x l IH]; intros Hnd Hf m Hm.
    - cbn. by rewrite (left_id_L ∅ (∪)).
    - rewrite fmap_cons in Hnd. apply NoDup_cons in Hnd as [Hx Hnd]. cbn [foldl].
      rewrite Hf, IH; [|done|intros ????; apply Hf; [by right|done]| |by left|apply Hm; by left].
      + rewrite fmap_cons, list_to_map_cons. cbn [fst snd]. rewrite <-insert_union_l, insert_union_r; [done|].
        apply not_elem_of_list_to_map_1. by rewrite <-list_fmap_compose.
      + intros y Hy. rewrite lookup_insert_ne; [apply Hm; by right|]. intros Heq. apply Hx. rewrite Heq.
        by apply elem_of_list_fmap_1.
  Qed.
  Lemma foldl_insert_fresh_empty (l : list B) : NoDup (key <$> l) →
    (∀ m x, x ∈ l → m !! key x = None → f m x = <[ key x := val x ]> m) →
    foldl f ∅ l = list_to_map ((λ x, (key x, val x)) <$> l).
  Proof.
    intros Hnd Hf. rewrite foldl_insert_fresh by (done || by intros; apply lookup_empty). apply (right_id_L ∅ (∪)).
  Qed.
End insert_fresh.

Lemma normalize_pos_map (sd : gmap string positive) : normalize (map_to_list (Z.pos <$> sd)) = sd.
Proof.
  unfold normalize. etrans; [apply (foldl_insert_fresh_empty _ fst (λ sc, Z.to_pos sc.2))|].
  - apply NoDup_fst_map_to_list.
  - intros m [s c] Hin%elem_of_map_to_list Hm. rewrite lookup_fmap in Hin. destruct (sd !! s); simplify_eq/=.
    unfold side. by rewrite Hm.
  - change (λ x : string * Z, (x.1, Z.to_pos x.2)) with (prod_map (@id string) Z.to_pos).
    rewrite list_to_map_fmap, list_to_map_to_list, <-map_fmap_compose.
    apply map_eq. intros k. rewrite lookup_fmap. by destruct (sd !! k).
Qed.

(** * rebuilding by explicit-id adds *)
Section rebuild.
  Context {A : Type} (id_of : A → string) (lhs_of rhs_of : A → side) (rule_of : A → string).
  Definition rebuild_step (acc : net * option cerr) (x : A) : net * option cerr :=
    match acc with
    | (s, Some e) => (s, Some e)
    | (s, None) => let '(s', er, _) := add s (lhs_of x) (rhs_of x) (rule_of x) (Some (id_of x)) in (s', of_err <$> er)
    end.
  Definition rebuilt (x : A) : string * rxn := (id_of x, Rxn (norm_rule (rule_of x)) (lhs_of x) (rhs_of x)).
  Lemma rebuilt_fst (l : list A) : (rebuilt <$> l).*1 = id_of <$> l.
  Proof. induction l as [|? ? IH]; [done|]. by rewrite !fmap_cons, IH. Qed.

  Lemma rebuild_fold (l : list A) : NoDup (id_of <$> l) → Forall (λ x, ¬ (lhs_of x = ∅ ∧ rhs_of x = ∅)) l →
    ∀ s, (∀ x, x ∈ l → edges s !! id_of x = None) →
    ∃ s', foldl rebuild_step (s, None) l = (s', None) ∧
          edges s' = (list_to_map (rebuilt <$> l) : gmap string rxn) ∪ edges s ∧
          species s' = species s ∪ ⋃ ((λ x, dom (lhs_of x) ∪ dom (rhs_of x)) <$> l) ∧ mol s' = mol s.
  Proof.
    induction l as [|x l IH]; intros Hnd Hne s Hfresh.
    - exists s. split; [done|]. simpl. rewrite (left_id_L ∅ (∪)). split; [done|]. split; [set_solver|done].
    - rewrite fmap_cons in Hnd. apply NoDup_cons in Hnd as [Hx Hnd]. apply Forall_cons in Hne as [Hxne Hne].
      cbn [foldl]. unfold rebuild_step at 2.
      rewrite add_explicit_ok; [|apply Hfresh; by left|].
      2:{ unfold rxn_empty. simpl. by apply bool_decide_eq_false. }
      cbn [fmap option_fmap option_map].
      destruct (IH Hnd Hne (register s (id_of x) (Rxn (norm_rule (rule_of x)) (lhs_of x) (rhs_of x)))) as (s' & Hf & He & Hs & Hm).
      { intros y Hy. simpl. rewrite lookup_insert_ne.
        - apply Hfresh. by right.
        - intros E. apply Hx. rewrite E. apply elem_of_list_fmap. eauto. }
      exists s'. split; [exact Hf|]. split_and!.
      + rewrite He. cbn [edges register]. rewrite fmap_cons.
        change (list_to_map (rebuilt x :: (rebuilt <$> l))) with (<[id_of x := Rxn (norm_rule (rule_of x)) (lhs_of x) (rhs_of x)]> (list_to_map (rebuilt <$> l) : gmap string rxn)).
        apply map_eq. intros k. rewrite !lookup_union. destruct (decide (k = id_of x)) as [->|Hk].
        * rewrite !lookup_insert, (not_elem_of_list_to_map_1 _ (id_of x)) by (by rewrite rebuilt_fst).
          rewrite (Hfresh x) by left. done.
        * by rewrite !lookup_insert_ne by done.
      + rewrite Hs. cbn [species register]. unfold rxn_species. cbn [r_lhs r_rhs].
        rewrite fmap_cons, union_list_cons. symmetry. apply (assoc_L (∪)).
      + by rewrite Hm.
  Qed.
End rebuild.

Lemma set_mol_edges s x m : edges (set_mol s x m) = edges s.
Proof. done. Qed.
