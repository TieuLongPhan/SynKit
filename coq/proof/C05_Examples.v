(** C05 — non-vacuity examples for the theorems of props/C05.v: premises and counts are evaluated by vm_compute on concrete
    graphs taken from the implementation's parsing of hand-made cases (intermediate values are named by top-level
    definitions); a conclusion that is the theorem's own equation is its instance. *)
From Coq Require Import List ZArith Lia.
From SK Require Import lib.LGraph.
From SK Require Import model.C03_Model model.C05_Model proof.C05_Proof proof.C05_Pipe proof.C05_Prep proof.C05_Comp proof.C05_Order proof.C05_Sub proof.C05_Set proof.C05_Result proof.C05_AllStrat proof.C05_Default proof.C05_Rewrite proof.C05_Capstone proof.C05_Cap proof.C05_AnyCap proof.C05_Enum.
From SK Require Import lib.C06_Spec proof.C06_Comp proof.C06_Main.
Import ListNotations.

(* the cap of these examples: the engine's default (no embed_threshold given) *)
#[local] Instance default_thr : Thr := thr_of None.

(** sz: Suzuki-type rule [C:1][Br:2].[B:3][C:4]>>[C:1][C:4].[B:3][Br:2] applied backwards to CCC(C)C.OB(O)Br (the
    design-time witness of the numbering dependence, implicit-hydrogen mode); mt: metathesis on C=C.C=C; ds: disulfide
    formation on SCCS.CS; hx: halogen exchange on BrCCI (one substrate component, two pattern components). *)
Definition sz_host : hostg := (LG [(1%N, (NA 67%N false (3)%Z (0)%Z [67%N])); (2%N, (NA 67%N false (2)%Z (0)%Z [67%N; 67%N])); (3%N, (NA 67%N false (1)%Z (0)%Z [67%N; 67%N; 67%N])); (4%N, (NA 67%N false (3)%Z (0)%Z [67%N])); (5%N, (NA 67%N false (3)%Z (0)%Z [67%N])); (6%N, (NA 79%N false (1)%Z (0)%Z [66%N])); (7%N, (NA 66%N false (0)%Z (0)%Z [17010%N; 79%N; 79%N])); (8%N, (NA 79%N false (1)%Z (0)%Z [66%N])); (9%N, (NA 17010%N false (0)%Z (0)%Z [66%N]))] [(1%N, 2%N, (2)%Z); (2%N, 3%N, (2)%Z); (3%N, 4%N, (2)%Z); (3%N, 5%N, (2)%Z); (6%N, 7%N, (2)%Z); (7%N, 8%N, (2)%Z); (7%N, 9%N, (2)%Z)]).
Definition sz_tpl : its := (LG [(1%N, IN (NA 67%N false (0)%Z (0)%Z [17010%N]) (NA 67%N false (0)%Z (0)%Z [67%N]) 0%Z None); (4%N, IN (NA 67%N false (0)%Z (0)%Z [66%N]) (NA 67%N false (0)%Z (0)%Z [67%N]) 0%Z None); (2%N, IN (NA 17010%N false (0)%Z (0)%Z [67%N]) (NA 17010%N false (0)%Z (0)%Z [66%N]) 0%Z None); (3%N, IN (NA 66%N false (0)%Z (0)%Z [67%N]) (NA 66%N false (0)%Z (0)%Z [17010%N]) 0%Z None)] [(1%N, 4%N, ((0)%Z, (2)%Z, (-2)%Z)); (1%N, 2%N, ((2)%Z, (0)%Z, (2)%Z)); (4%N, 3%N, ((2)%Z, (0)%Z, (2)%Z)); (2%N, 3%N, ((0)%Z, (2)%Z, (-2)%Z))]).
Definition mt_host : hostg := (LG [(1%N, (NA 67%N false (2)%Z (0)%Z [67%N])); (2%N, (NA 67%N false (2)%Z (0)%Z [67%N])); (3%N, (NA 67%N false (2)%Z (0)%Z [67%N])); (4%N, (NA 67%N false (2)%Z (0)%Z [67%N]))] [(1%N, 2%N, (4)%Z); (3%N, 4%N, (4)%Z)]).
Definition mt_tpl : its := (LG [(1%N, IN (NA 67%N false (2)%Z (0)%Z [67%N]) (NA 67%N false (2)%Z (0)%Z [67%N]) 0%Z None); (3%N, IN (NA 67%N false (2)%Z (0)%Z [67%N]) (NA 67%N false (2)%Z (0)%Z [67%N]) 0%Z None); (2%N, IN (NA 67%N false (2)%Z (0)%Z [67%N]) (NA 67%N false (2)%Z (0)%Z [67%N]) 0%Z None); (4%N, IN (NA 67%N false (2)%Z (0)%Z [67%N]) (NA 67%N false (2)%Z (0)%Z [67%N]) 0%Z None)] [(1%N, 3%N, ((0)%Z, (4)%Z, (-4)%Z)); (1%N, 2%N, ((4)%Z, (0)%Z, (4)%Z)); (3%N, 4%N, ((4)%Z, (0)%Z, (4)%Z)); (2%N, 4%N, ((0)%Z, (4)%Z, (-4)%Z))]).
Definition ds_host : hostg := (LG [(1%N, (NA 83%N false (1)%Z (0)%Z [67%N])); (2%N, (NA 67%N false (2)%Z (0)%Z [67%N; 83%N])); (3%N, (NA 67%N false (2)%Z (0)%Z [67%N; 83%N])); (4%N, (NA 83%N false (1)%Z (0)%Z [67%N])); (5%N, (NA 67%N false (3)%Z (0)%Z [83%N])); (6%N, (NA 83%N false (1)%Z (0)%Z [67%N]))] [(1%N, 2%N, (2)%Z); (2%N, 3%N, (2)%Z); (3%N, 4%N, (2)%Z); (5%N, 6%N, (2)%Z)]).
Definition ds_tpl : its := (LG [(2%N, IN (NA 83%N false (0)%Z (0)%Z [67%N]) (NA 83%N false (0)%Z (0)%Z [67%N; 83%N]) 0%Z None); (4%N, IN (NA 83%N false (0)%Z (0)%Z [67%N]) (NA 83%N false (0)%Z (0)%Z [67%N; 83%N]) 0%Z None)] [(2%N, 4%N, ((0)%Z, (2)%Z, (-2)%Z))]).
Definition hx_host : hostg := (LG [(1%N, (NA 17010%N false (0)%Z (0)%Z [67%N])); (2%N, (NA 67%N false (2)%Z (0)%Z [17010%N; 67%N])); (3%N, (NA 67%N false (2)%Z (0)%Z [67%N; 73%N])); (4%N, (NA 73%N false (0)%Z (0)%Z [67%N]))] [(1%N, 2%N, (2)%Z); (2%N, 3%N, (2)%Z); (3%N, 4%N, (2)%Z)]).
Definition hx_tpl : its := (LG [(1%N, IN (NA 67%N false (0)%Z (0)%Z [17010%N]) (NA 67%N false (0)%Z (0)%Z [73%N]) 0%Z None); (4%N, IN (NA 73%N false (0)%Z (0)%Z [67%N]) (NA 73%N false (0)%Z (0)%Z [67%N]) 0%Z None); (2%N, IN (NA 17010%N false (0)%Z (0)%Z [67%N]) (NA 17010%N false (0)%Z (0)%Z [67%N]) 0%Z None); (3%N, IN (NA 67%N false (0)%Z (0)%Z [73%N]) (NA 67%N false (0)%Z (0)%Z [17010%N]) 0%Z None)] [(1%N, 4%N, ((0)%Z, (2)%Z, (-2)%Z)); (1%N, 2%N, ((2)%Z, (0)%Z, (2)%Z)); (4%N, 3%N, ((2)%Z, (0)%Z, (2)%Z)); (2%N, 3%N, ((0)%Z, (2)%Z, (-2)%Z))]).

Definition dummy : prepared := Prep (LG [] []) (LG [] []) (LG [] []) false (LG [] []).
Definition prep_of (inv : bool) (t : its) : prepared := match prepare inv true t with Some p => p | None => dummy end.
Definition sz_p := prep_of true sz_tpl.
Definition mt_p := prep_of false mt_tpl.
Definition ds_p := prep_of false ds_tpl.
Definition hx_p := prep_of false hx_tpl.

(** the renumbering of the witness: template maps 1,2,3,4 -> 3,1,2,4 (B/Br get the small numbers); substrate reversed *)
Definition sz_sg (n : N) : N := (if n =? 1 then 3 else if n =? 2 then 1 else if n =? 3 then 2 else n)%N.
Definition sz_pi (n : N) : N := (if n <=? 31 then 31 - n else n)%N.

(** [sz_sg] as a list of pairs (read by [apply_map]): a permutation of its domain, hence injective *)
Definition hx_sg : list (N * N) := [(1, 3); (2, 1); (3, 2)]%N.
Lemma sz_sg_inj : inj sz_sg.
Proof.
  assert (E : forall a, sz_sg a = apply_map hx_sg a).
  { intros a. unfold sz_sg, apply_map, hx_sg; simpl.
    destruct (a =? 1)%N; [reflexivity|]. destruct (a =? 2)%N; [reflexivity|]. destruct (a =? 3)%N; reflexivity. }
  intros a b. rewrite !E. apply permb_inj. reflexivity.
Qed.
Lemma sz_pi_inj : inj sz_pi.
Proof.
  intros a b. unfold sz_pi. destruct (N.leb_spec a 31), (N.leb_spec b 31); intros E; lia.
Qed.

Lemma ds_raw_comp : length (raw_of 1%N ds_host ds_p) = 4%nat.
Proof. vm_compute. reflexivity. Qed.
Lemma ds_glued_comp : length (glued_of 1%N ds_host ds_p) = 2%nat.
Proof. vm_compute. reflexivity. Qed.
Lemma ds_glued_all : length (glued_of 0%N ds_host ds_p) = 3%nat.
Proof. vm_compute. reflexivity. Qed.
Lemma ds_okb_c : side_okb_c ds_host ds_p = true.
Proof. vm_compute. reflexivity. Qed.
Lemma sz_prepare : prepare true true sz_tpl = Some sz_p.
Proof. vm_compute. reflexivity. Qed.
Lemma sz_flag : p_flag sz_p = false.
Proof. vm_compute. reflexivity. Qed.
Lemma sz_count : option_map (@length its) (pipeline true true false 0%N sz_host sz_tpl) = Some 8%nat.
Proof. vm_compute. reflexivity. Qed.
Lemma ds_prepare : prepare false true ds_tpl = Some ds_p.
Proof. vm_compute. reflexivity. Qed.
Lemma ds_flag : p_flag ds_p = false.
Proof. vm_compute. reflexivity. Qed.
Lemma hx_prepare : prepare false true hx_tpl = Some hx_p.
Proof. vm_compute. reflexivity. Qed.
Lemma hx_flag : p_flag hx_p = false.
Proof. vm_compute. reflexivity. Qed.
Lemma hx_glued_all : length (glued_of 0%N hx_host hx_p) = 1%nat.
Proof. vm_compute. reflexivity. Qed.
Lemma hx_okb_c : side_okb_c hx_host hx_p = true.
Proof. vm_compute. reflexivity. Qed.

(** results: flag off, 8 glued graphs (evaluated); the equation is then the instance of [glued_relabel] *)
Example result_invariant_nonvacuous :
  p_flag sz_p = false /\ length (glued_of 0%N sz_host sz_p) = 8%nat /\
  length (kept_of 0%N sz_host sz_p) = 8%nat /\
  glued_of 0%N (relabel sz_pi sz_host) (relabel_prep sz_sg sz_p) = map (relabel sz_pi) (glued_of 0%N sz_host sz_p).
Proof.
  split; [exact sz_flag|]. split; [|split; [vm_compute; reflexivity|]].
  - pose proof sz_count as E. rewrite (pipeline_glued true 0%N sz_host sz_tpl sz_p sz_prepare) in E. cbn [option_map] in E. congruence.
  - exact (glued_relabel 0%N sz_sg sz_pi sz_sg_inj sz_pi_inj sz_host sz_p sz_flag).
Qed.

(** the renumbered template gives, through the whole pipeline, as many results as the original (the defect repaired by
    aa7fe3c gave 6 and 3 distinct precursor sets here) *)
Example suzuki_counts :
  option_map (@length its) (pipeline true true false 0%N sz_host sz_tpl) = Some 8%nat /\
  option_map (@length its) (pipeline true true false 0%N (relabel sz_pi sz_host) (relabel sz_sg sz_tpl)) = Some 8%nat.
Proof.
  pose proof sz_count as E. split; [exact E|].
  rewrite (pipeline_relabel sz_sg sz_pi sz_sg_inj sz_pi_inj true sz_host sz_tpl sz_p sz_prepare sz_flag).
  destruct (pipeline true true false 0%N sz_host sz_tpl); [simpl; rewrite map_length|]; exact E.
Qed.

(** matches: 8 raw matches transported *)
Example matches_equivariant_nonvacuous :
  length (matches 0%N sz_host (p_pat sz_p)) = 8%nat /\
  matches 0%N (relabel sz_pi sz_host) (relabel sz_sg (p_pat sz_p)) = map (mv sz_sg sz_pi) (matches 0%N sz_host (p_pat sz_p)).
Proof. split; [vm_compute; reflexivity | apply matches_relabel; [exact sz_sg_inj | exact sz_pi_inj]]. Qed.

(** pruning: the metathesis rule has 4 automorphisms; 8 raw matches, 2 kept, every dropped one covered *)
Example prune_nonvacuous :
  length (rule_auts (p_rc mt_p)) = 4%nat /\ length (raw_of 0%N mt_host mt_p) = 8%nat /\ length (kept_of 0%N mt_host mt_p) = 2%nat /\
  rule_auts (relabel sz_sg (p_rc mt_p)) = map (mv sz_sg sz_sg) (rule_auts (p_rc mt_p)).
Proof. repeat apply conj; try exact (rule_auts_relabel sz_sg sz_sg_inj (p_rc mt_p)); vm_compute; reflexivity. Qed.

(** strategies: disulfide formation on SCCS.CS — 6 raw matches exhaustively, 4 component-aware (non-empty), BACKTRACK
    returns the component-aware ones; halogen exchange on BrCCI — fewer substrate components, COMPONENT = ALL *)
Example strategy_nonvacuous :
  length (raw_of 0%N ds_host ds_p) = 6%nat /\ length (raw_of 1%N ds_host ds_p) = 4%nat /\
  raw_of 2%N ds_host ds_p = raw_of 1%N ds_host ds_p /\
  length (glued_of 1%N ds_host ds_p) = 2%nat /\ glued_of 2%N ds_host ds_p = glued_of 1%N ds_host ds_p /\
  length (C06_Model.comps (host_c06 hx_host)) = 1%nat /\ length (C06_Model.comps (pat_c06 (p_pat hx_p))) = 2%nat /\
  length (matches 1%N hx_host (p_pat hx_p)) = 1%nat /\ matches 1%N hx_host (p_pat hx_p) = matches 0%N hx_host (p_pat hx_p).
Proof.
  assert (R : raw_of 1%N ds_host ds_p <> []) by (intros Z; pose proof ds_raw_comp as L; rewrite Z in L; discriminate L).
  assert (C1 : length (C06_Model.comps (host_c06 hx_host)) = 1%nat) by (vm_compute; reflexivity).
  assert (C2 : length (C06_Model.comps (pat_c06 (p_pat hx_p))) = 2%nat) by (vm_compute; reflexivity).
  split; [vm_compute; reflexivity|]. split; [exact ds_raw_comp|]. split; [exact (matches_bt_comp _ _ R)|].
  split; [exact ds_glued_comp|]. split; [exact (glued_bt_comp _ _ ds_flag R)|]. split; [exact C1|]. split; [exact C2|].
  split; [vm_compute; reflexivity|]. apply matches_comp_all_few; rewrite C2; [discriminate | rewrite C1; constructor].
Qed.

(** repetition *)
Example repeat_nonvacuous : pipeline true true false 0%N sz_host sz_tpl <> None.
Proof. intros E. pose proof sz_count as C. rewrite E in C. discriminate C. Qed.

(** end to end: the hypotheses of C05_pipeline_equivariant_implicit hold for the witness *)
Example pipeline_invariant_nonvacuous :
  prepare true true sz_tpl = Some sz_p /\ p_flag sz_p = false /\
  pipeline true true false 0%N (relabel sz_pi sz_host) (relabel sz_sg sz_tpl)
  = option_map (map (relabel sz_pi)) (pipeline true true false 0%N sz_host sz_tpl).
Proof.
  split; [exact sz_prepare|]. split; [exact sz_flag|].
  exact (pipeline_relabel sz_sg sz_pi sz_sg_inj sz_pi_inj true sz_host sz_tpl sz_p sz_prepare sz_flag).
Qed.

(** every strategy: the disulfide case (component-aware search smaller than the exhaustive one) renumbered *)
Example all_strategies_nonvacuous :
  length (glued_of 1%N ds_host ds_p) = 2%nat /\ length (glued_of 0%N ds_host ds_p) = 3%nat /\ p_flag ds_p = false /\
  glued_of 1%N (relabel sz_pi ds_host) (relabel_prep sz_sg ds_p) = map (relabel sz_pi) (glued_of 1%N ds_host ds_p) /\
  glued_of 2%N (relabel sz_pi ds_host) (relabel_prep sz_sg ds_p) = map (relabel sz_pi) (glued_of 2%N ds_host ds_p) /\
  pipeline false true false 1%N (relabel sz_pi ds_host) (relabel sz_sg ds_tpl)
  = option_map (map (relabel sz_pi)) (pipeline false true false 1%N ds_host ds_tpl).
Proof.
  split; [exact ds_glued_comp|]. split; [exact ds_glued_all|]. split; [exact ds_flag|].
  split; [exact (glued_relabel 1%N sz_sg sz_pi sz_sg_inj sz_pi_inj ds_host ds_p ds_flag)|].
  split; [exact (glued_relabel 2%N sz_sg sz_pi sz_sg_inj sz_pi_inj ds_host ds_p ds_flag)|].
  exact (pipeline_relabel_any 1%N sz_sg sz_pi sz_sg_inj sz_pi_inj false ds_host ds_tpl ds_p ds_prepare ds_flag).
Qed.

(** BrCCI written backwards: nodes and bonds in reverse insertion order, every stored bond flipped *)
Definition hx_host2 : hostg :=
  LG (rev (gnodes hx_host)) (map (fun e : N * N * Z => let '(a, b, o) := e in (b, a, o)) (rev (gedges hx_host))).

Lemma hx_same : same_graph hx_host hx_host2.
Proof. apply same_hostb_ok. vm_compute. reflexivity. Qed.

Example matches_order_nonvacuous :
  same_graph hx_host hx_host2 /\ gnodes hx_host2 <> gnodes hx_host /\
  length (matches 0%N hx_host (p_pat hx_p)) = 1%nat /\
  (forall m, In m (matches 0%N hx_host (p_pat hx_p)) <-> In m (matches 0%N hx_host2 (p_pat hx_p))).
Proof.
  split; [exact hx_same|]. split; [vm_compute; discriminate|]. split; [vm_compute; reflexivity|].
  apply matches_all_host_order. exact hx_same.
Qed.

(** ** component-aware matches are exhaustive matches: premises hold and the conclusion is about 4 matches *)
Example comp_subset_nonvacuous :
  gwf (host_c06 ds_host) /\ gwf (pat_c06 (p_pat ds_p)) /\
  (comp_bound (C06_Model.monos_on (host_c06 ds_host) (pat_c06 (p_pat ds_p))) true (host_c06 ds_host) (pat_c06 (p_pat ds_p)) <= thr_val)%N /\
  (C06_Model.lenN (C06_Model.monos_on (host_c06 ds_host) (pat_c06 (p_pat ds_p)) (node_ids (host_c06 ds_host)) (node_ids (pat_c06 (p_pat ds_p)))) <= thr_val)%N /\
  length (matches 1%N ds_host (p_pat ds_p)) = 4%nat /\
  (forall m, In m (matches 1%N ds_host (p_pat ds_p)) -> exists m', In m' (matches 0%N ds_host (p_pat ds_p)) /\ Permutation.Permutation m m').
Proof.
  assert (G1 : gwf (host_c06 ds_host)) by (apply gwfb_spec; vm_compute; reflexivity).
  assert (G2 : gwf (pat_c06 (p_pat ds_p))) by (apply gwfb_spec; vm_compute; reflexivity).
  assert (B1 : (comp_bound (C06_Model.monos_on (host_c06 ds_host) (pat_c06 (p_pat ds_p))) true (host_c06 ds_host) (pat_c06 (p_pat ds_p)) <= thr_val)%N)
    by (apply N.leb_le; vm_compute; reflexivity).
  assert (B2 : (C06_Model.lenN (C06_Model.monos_on (host_c06 ds_host) (pat_c06 (p_pat ds_p)) (node_ids (host_c06 ds_host)) (node_ids (pat_c06 (p_pat ds_p)))) <= thr_val)%N)
    by (apply N.leb_le; vm_compute; reflexivity).
  split; [exact G1|]. split; [exact G2|]. split; [exact B1|]. split; [exact B2|]. split; [exact ds_raw_comp|].
  exact (comp_subset_all ds_host (p_pat ds_p) G1 G2 B1 B2).
Qed.

(** ** the set of glued graphs under re-ordering (BrCCI written backwards) and under renumbering + re-ordering *)
Lemma same_graph_refl {A B} (g : lgraph A B) : nodupb (node_ids g) = true -> same_graph g g.
Proof. intros H. apply C03_Proof.nodupb_NoDup in H. repeat split; auto. Qed.

Example glued_set_invariant_nonvacuous :
  side_ok hx_host hx_p /\ side_ok hx_host2 hx_p /\ same_graph hx_host hx_host2 /\
  length (glued_of 0%N hx_host hx_p) = 1%nat /\
  (forall T, In T (glued_of 0%N hx_host hx_p) -> exists T', In T' (glued_of 0%N hx_host2 hx_p) /\ obs_eq T T').
Proof.
  assert (S1 : side_ok hx_host hx_p) by (apply side_okb_ok; vm_compute; reflexivity).
  assert (S2 : side_ok hx_host2 hx_p) by (apply side_okb_ok; vm_compute; reflexivity).
  split; [exact S1|]. split; [exact S2|]. split; [exact hx_same|]. split; [exact hx_glued_all|].
  apply (glued_set_invariant hx_host hx_host2 hx_p hx_p S1 S2 hx_same); apply same_graph_refl; vm_compute; reflexivity.
Qed.

(** renumbered by (sz_sg, sz_pi), then written backwards *)
Definition hx_host_r : hostg := Eval vm_compute in relabel sz_pi hx_host.
Definition hx_host_r2 : hostg :=
  LG (rev (gnodes hx_host_r)) (map (fun e : N * N * Z => let '(a, b, o) := e in (b, a, o)) (rev (gedges hx_host_r))).

Lemma hx_same_r : same_graph (relabel sz_pi hx_host) hx_host_r2.
Proof. apply same_hostb_ok. vm_compute. reflexivity. Qed.

Example glued_set_rewriting_nonvacuous :
  gnodes hx_host_r2 <> gnodes (relabel sz_pi hx_host) /\
  (forall T, In T (glued_of 0%N hx_host hx_p) ->
     exists T'', In T'' (glued_of 0%N hx_host_r2 (relabel_prep sz_sg hx_p)) /\ obs_eq (relabel sz_pi T) T'') /\
  (forall T'', In T'' (glued_of 0%N hx_host_r2 (relabel_prep sz_sg hx_p)) ->
     exists T, In T (glued_of 0%N hx_host hx_p) /\ obs_eq (relabel sz_pi T) T'').
Proof.
  split; [vm_compute; discriminate|].
  assert (S1 : side_ok (relabel sz_pi hx_host) (relabel_prep sz_sg hx_p)) by (apply side_okb_ok; vm_compute; reflexivity).
  assert (S2 : side_ok hx_host_r2 (relabel_prep sz_sg hx_p)) by (apply side_okb_ok; vm_compute; reflexivity).
  apply (glued_set_rewriting sz_sg sz_pi sz_sg_inj sz_pi_inj hx_host hx_host_r2 hx_p (relabel_prep sz_sg hx_p) S1 S2 hx_same_r).
  - apply same_graph_refl. vm_compute. reflexivity.
  - apply same_graph_refl. vm_compute. reflexivity.
Qed.

(** ** every strategy under re-ordering: disulfide formation on SCCS.CS written backwards (component-aware search
    smaller than the exhaustive one: 2 vs 3 glued graphs) *)
Definition ds_host2 : hostg :=
  LG (rev (gnodes ds_host)) (map (fun e : N * N * Z => let '(a, b, o) := e in (b, a, o)) (rev (gedges ds_host))).

Lemma ds_same : same_graph ds_host ds_host2.
Proof. apply same_hostb_ok. vm_compute. reflexivity. Qed.

Example glued_set_invariant_any_nonvacuous :
  gnodes ds_host2 <> gnodes ds_host /\
  length (glued_of 1%N ds_host ds_p) = 2%nat /\ length (glued_of 0%N ds_host ds_p) = 3%nat /\
  (forall T, In T (glued_of 1%N ds_host ds_p) -> exists T', In T' (glued_of 1%N ds_host2 ds_p) /\ obs_eq T T') /\
  (forall T, In T (glued_of 2%N ds_host ds_p) -> exists T', In T' (glued_of 2%N ds_host2 ds_p) /\ obs_eq T T') /\
  (forall T, In T (glued_of 0%N ds_host ds_p) -> exists T', In T' (glued_of 0%N ds_host2 ds_p) /\ obs_eq T T').
Proof.
  assert (S1 : side_ok_c ds_host ds_p) by (apply side_okb_c_ok; exact ds_okb_c).
  assert (S2 : side_ok_c ds_host2 ds_p) by (apply side_okb_c_ok; vm_compute; reflexivity).
  assert (R : same_graph (p_rc ds_p) (p_rc ds_p)) by (apply same_graph_refl; vm_compute; reflexivity).
  assert (Q : same_graph (p_pat ds_p) (p_pat ds_p)) by (apply same_graph_refl; vm_compute; reflexivity).
  split; [vm_compute; discriminate|]. split; [exact ds_glued_comp|]. split; [exact ds_glued_all|].
  split; [|split].
  - exact (glued_set_invariant_any 1%N ds_host ds_host2 ds_p ds_p (or_intror (or_introl eq_refl)) S1 S2 ds_same R Q).
  - exact (glued_set_invariant_any 2%N ds_host ds_host2 ds_p ds_p (or_intror (or_intror eq_refl)) S1 S2 ds_same R Q).
  - exact (glued_set_invariant_any 0%N ds_host ds_host2 ds_p ds_p (or_introl eq_refl) S1 S2 ds_same R Q).
Qed.

(** ** from the template: halogen exchange, template renumbered by sz_sg and written backwards, substrate renumbered by
    sz_pi and written backwards *)
Definition hx_tpl_r : its := Eval vm_compute in relabel sz_sg hx_tpl.
Definition hx_tpl_r2 : its :=
  LG (rev (gnodes hx_tpl_r)) (map (fun e : N * N * iedge => let '(a, b, o) := e in (b, a, o)) (rev (gedges hx_tpl_r))).

Lemma hx_tpl_same : same_graph (relabel sz_sg hx_tpl) hx_tpl_r2.
Proof. apply same_itsb_ok. vm_compute. reflexivity. Qed.

(** what the default-configuration theorems ask of a template: distinct ids, no hydrogen atoms, no hydrogen pairs, simple bonds *)
Lemma hx_tpl_ok (T : its) : T = hx_tpl \/ T = hx_tpl_r2 ->
  nodupb (node_ids T) = true /\ noHb T = true /\ nohp T /\ simple_edgesb (gedges T) = true.
Proof. intros [->| ->]; repeat apply conj; try apply nohp_forallb; vm_compute; reflexivity. Qed.

Example pipeline_set_invariant_nonvacuous :
  gnodes hx_tpl_r2 <> gnodes (relabel sz_sg hx_tpl) /\
  exists p'', prepare false true hx_tpl_r2 = Some p'' /\
    pipeline false true false 0%N hx_host_r2 hx_tpl_r2 = Some (glued_of 0%N hx_host_r2 p'') /\
    length (glued_of 0%N hx_host hx_p) = 1%nat /\
    (forall T, In T (glued_of 0%N hx_host hx_p) -> exists T'', In T'' (glued_of 0%N hx_host_r2 p'') /\ obs_eq (relabel sz_pi T) T'').
Proof.
  split; [vm_compute; discriminate|].
  destruct (hx_tpl_ok hx_tpl (or_introl eq_refl)) as (_ & _ & _ & Hw).
  destruct (hx_tpl_ok hx_tpl_r2 (or_intror eq_refl)) as (_ & _ & _ & Hw2).
  destruct (pipeline_set_invariant 0%N sz_sg sz_pi false hx_host hx_host_r2 hx_tpl hx_tpl_r2 hx_p (or_introl eq_refl)
              sz_sg_inj sz_pi_inj hx_prepare hx_flag Hw Hw2 hx_same_r hx_tpl_same) as (p2 & H1 & _ & _ & H4 & H5).
  assert (E : p2 = prep_of false hx_tpl_r2) by (unfold prep_of; rewrite H1; reflexivity).
  exists p2. split; [exact H1|]. split; [exact H4|]. split; [exact hx_glued_all|].
  apply H5.
  - apply side_okb_c_ok. vm_compute. reflexivity.
  - subst p2. apply side_okb_c_ok. vm_compute. reflexivity.
Qed.

(** results of the component-aware strategy among the results of the exhaustive one: 2 of 3 on SCCS.CS *)
Example strategy_subset_results_nonvacuous :
  side_okb_c ds_host ds_p = true /\ length (glued_of 1%N ds_host ds_p) = 2%nat /\ length (glued_of 0%N ds_host ds_p) = 3%nat /\
  (forall T, In T (glued_of 1%N ds_host ds_p) -> exists T', In T' (glued_of 0%N ds_host ds_p) /\ obs_eq T T').
Proof.
  split; [exact ds_okb_c|]. split; [exact ds_glued_comp|]. split; [exact ds_glued_all|].
  exact (proj1 (glued_subset_all_any_cap ds_host ds_p (proj1 (side_okb_c_ok _ _ ds_okb_c)))).
Qed.

(** ** default configuration: halogen exchange (no hydrogen atoms in the template), template and substrate renumbered and
    written backwards; the _explicit_h stage is on *)
Example pipeline_default_nonvacuous :
  noHb hx_tpl = true /\ pipeline false false true 0%N hx_host hx_tpl = Some (glued_of 0%N hx_host (prep_default false hx_tpl)) /\
  length (glued_of 0%N hx_host (prep_default false hx_tpl)) = 1%nat /\
  (forall T, In T (glued_of 0%N hx_host (prep_default false hx_tpl)) ->
     exists T'', In T'' (glued_of 0%N hx_host_r2 (prep_default false hx_tpl_r2)) /\ obs_eq (relabel sz_pi T) T'').
Proof.
  destruct (hx_tpl_ok hx_tpl (or_introl eq_refl)) as (A1 & A2 & A3 & A4).
  destruct (hx_tpl_ok hx_tpl_r2 (or_intror eq_refl)) as (B1 & B2 & B3 & B4).
  destruct (pipeline_default_set_invariant 0%N sz_sg sz_pi false hx_host hx_host_r2 hx_tpl hx_tpl_r2 (or_introl eq_refl) sz_sg_inj sz_pi_inj
              A1 A2 A3 A4 B1 B2 B3 B4 hx_same_r hx_tpl_same) as (P1 & _ & P3).
  split; [exact A2|]. split; [exact P1|]. split; [vm_compute; reflexivity|].
  apply P3; apply side_okb_c_ok; vm_compute; reflexivity.
Qed.

(** the monitor accepts the renumbered and reversed writing of the halogen-exchange case (pi = sz_pi on 1..4, sg = sz_sg) *)
Example rewriting_monitor_nonvacuous :
  rewriting_okb hx_host hx_tpl (hx_host_r2, hx_tpl_r2, [(1, 30); (2, 29); (3, 28); (4, 27); (30, 1); (29, 2); (28, 3); (27, 4)]%N,
                                [(1, 3); (2, 1); (3, 2)]%N) = true.
Proof. vm_compute. reflexivity. Qed.

(** capstones on the halogen-exchange case: everything the theorems ask of the two writings is evaluated *)
Definition hx_pi : list (N * N) := [(1, 30); (2, 29); (3, 28); (4, 27); (30, 1); (29, 2); (28, 3); (27, 4)]%N.
Example capstones_nonvacuous :
  (exists p, prepare false true hx_tpl_r2 = Some p /\
     forall T, In T (glued_of 1%N hx_host hx_p) -> exists T', In T' (glued_of 1%N hx_host_r2 p) /\ obs_eq (relabel (apply_map hx_pi) T) T') /\
  (forall T, In T (glued_of 2%N hx_host (prep_default false hx_tpl)) ->
     exists T', In T' (glued_of 2%N hx_host_r2 (prep_default false hx_tpl_r2)) /\ obs_eq (relabel (apply_map hx_pi) T) T').
Proof.
  assert (Hrw : rewriting_okb hx_host hx_tpl (hx_host_r2, hx_tpl_r2, hx_pi, hx_sg) = true) by (vm_compute; reflexivity).
  split.
  - destruct (pipeline_checked_implicit 1%N false hx_host hx_host_r2 hx_tpl hx_tpl_r2 hx_pi hx_sg hx_p (or_intror (or_introl eq_refl)) Hrw
                  hx_prepare hx_flag hx_okb_c) as (p & A & _ & _ & _ & E).
    exists p. split; [exact A|].
    assert (Ep : p = prep_of false hx_tpl_r2) by (unfold prep_of; rewrite A; reflexivity).
    apply E. subst p. vm_compute. reflexivity.
  - destruct (hx_tpl_ok hx_tpl (or_introl eq_refl)) as (A1 & A2 & A3 & _).
    destruct (hx_tpl_ok hx_tpl_r2 (or_intror eq_refl)) as (B1 & B2 & B3 & _).
    destruct (pipeline_checked_default 2%N false hx_host hx_host_r2 hx_tpl hx_tpl_r2 hx_pi hx_sg (or_intror (or_intror eq_refl)) Hrw
                A1 A2 A3 B1 B2 B3) as (_ & _ & F & _); [..|exact F]; vm_compute; reflexivity.
Qed.

(** ** the embedding cap: the number of embeddings does not depend on the writing (halogen exchange on BrCCI written
    backwards AND renumbered: the same number of embeddings either way), and the cap-free invariance theorem applied to the two writings
    under a cap below (0: both searches capped, no result) and at (1) the number of embeddings *)
Example cap_decision_nonvacuous :
  C06_Model.lenN (enum_all hx_host (p_pat hx_p)) = C06_Model.lenN (enum_all hx_host2 (p_pat hx_p)) /\
  C06_Model.lenN (enum_all hx_host_r2 (p_pat (relabel_prep sz_sg hx_p))) = C06_Model.lenN (enum_all hx_host (p_pat hx_p)) /\
  (0 < C06_Model.lenN (enum_all hx_host (p_pat hx_p)))%N.
Proof.
  split; [apply enum_all_count_host_order; exact hx_same|].
  split; [|vm_compute; reflexivity].
  destruct hx_p as [rc l r fl pat] eqn:E. simpl.
  apply (capped_invariant sz_sg sz_pi sz_sg_inj sz_pi_inj). exact hx_same_r.
Qed.

Example any_cap_nonvacuous :
  side_okb0 (relabel sz_pi hx_host) (relabel_prep sz_sg hx_p) = true /\ side_okb0 hx_host_r2 (relabel_prep sz_sg hx_p) = true /\
  length (@glued_of (thr_of (Some 0%N)) 0%N hx_host hx_p) = 0%nat /\
  length (@glued_of (thr_of (Some 0%N)) 0%N hx_host_r2 (relabel_prep sz_sg hx_p)) = 0%nat /\
  length (@glued_of (thr_of (Some 1%N)) 0%N hx_host hx_p) = 1%nat /\
  length (@glued_of (thr_of (Some 1%N)) 0%N hx_host_r2 (relabel_prep sz_sg hx_p)) = 1%nat.
Proof. repeat apply conj; vm_compute; reflexivity. Qed.

(** the pre-filter option on the same two writings: premises of the any-options theorem evaluated; the guard does not fire
    under the default cap (one glued graph on both sides) and fires under cap 0 (none on both sides) *)
Example any_options_nonvacuous :
  C06_Model.wfb (host_c06 (relabel sz_pi hx_host)) = true /\ C06_Model.wfb (host_c06 hx_host_r2) = true /\
  C06_Model.wfb (pat_c06 (p_pat (relabel_prep sz_sg hx_p))) = true /\
  length (@glued_of_pf (thr_of None) true 0%N hx_host hx_p) = 1%nat /\
  length (@glued_of_pf (thr_of None) true 0%N hx_host_r2 (relabel_prep sz_sg hx_p)) = 1%nat /\
  @prefilter_fires (thr_of (Some 0%N)) hx_host hx_p = true /\
  @glued_of_pf (thr_of (Some 0%N)) true 0%N hx_host_r2 (relabel_prep sz_sg hx_p) = [].
Proof. repeat apply conj; vm_compute; reflexivity. Qed.

(** the enumeration order: the 8 raw matches of the metathesis rule on C=C.C=C listed backwards with every match written
    backwards — the pruning keeps OTHER representatives, the same number of glued graphs results (and, by the theorem, the
    same graphs up to [obs_eq]) *)
Definition mt_raw := raw_of 0%N mt_host mt_p.
Definition mt_raw' := rev (map (fun m : mapping => rev m) mt_raw).
Example enumeration_nonvacuous :
  side_okb mt_host mt_p = true /\
  prune (p_rc mt_p) mt_raw' <> prune (p_rc mt_p) mt_raw /\
  forallb (fun k' => negb (existsb (fun k => C11_Model.set_eqb k k') (prune (p_rc mt_p) mt_raw))) (prune (p_rc mt_p) mt_raw') = true /\
  length (flat_map (glue1 mt_host (p_rc mt_p)) (prune (p_rc mt_p) mt_raw')) = 2%nat /\
  length (glued_of 0%N mt_host mt_p) = 2%nat.
Proof. repeat apply conj; try (vm_compute; reflexivity). vm_compute. discriminate. Qed.
