(** C04 — pieces of the chain through the reactor object (model/C04_Reactor.v): the canonical codes the reactor hands to the
    pruning are faithful; membership in the list of glued ITS graphs the object builds from its kept mappings. *)
From Coq Require Import List NArith ZArith Bool Lia.
From SK Require Import lib.LGraph model.C06_Model lib.C06_Spec proof.C06_All model.C03_Model model.C04_Model model.C04_Reactor proof.C04_Proof
                       proof.C04_Engine proof.C04_Object proof.C04_Prune.
Import ListNotations.
Local Open Scope Z_scope.

(** * the canonical codes are faithful *)
Lemma list_eqb_N a : forall b, list_eqb N.eqb a b = true -> a = b.
Proof.
  induction a as [|x a IH]; intros [|y b] E; simpl in E; try discriminate; [reflexivity|].
  apply andb_prop in E. destruct E as [E1 E2]. apply N.eqb_eq in E1. rewrite E1, (IH b E2). reflexivity.
Qed.
Lemma nattr_eqb_eq x y : nattr_eqb x y = true -> x = y.
Proof.
  unfold nattr_eqb. intros E. apply andb_prop in E. destruct E as [E E5]. apply andb_prop in E. destruct E as [E E4].
  apply andb_prop in E. destruct E as [E E3]. apply andb_prop in E. destruct E as [E1 E2].
  apply N.eqb_eq in E1. apply Bool.eqb_prop in E2. apply Z.eqb_eq in E3. apply Z.eqb_eq in E4. apply list_eqb_N in E5.
  destruct x, y; simpl in *. subst. reflexivity.
Qed.
Lemma inode_eqb_tuples a b : inode_eqb a b = true -> iG a = iG b /\ iH a = iH b.
Proof.
  unfold inode_eqb. intros E. apply andb_prop in E. destruct E as [E _]. apply andb_prop in E. destruct E as [E1 E2].
  split; apply nattr_eqb_eq; assumption.
Qed.
Lemma iedge_eqb_eq x z : iedge_eqb x z = true -> x = z.
Proof.
  unfold iedge_eqb, eG, eH, eS. intros E. apply andb_prop in E. destruct E as [E E3]. apply andb_prop in E. destruct E as [E1 E2].
  apply Z.eqb_eq in E1. apply Z.eqb_eq in E2. apply Z.eqb_eq in E3. destruct x as [[x1 x2] x3], z as [[z1 z2] z3]; simpl in *. subst. reflexivity.
Qed.
Lemma list_eqb_N_refl a : list_eqb N.eqb a a = true.
Proof. induction a as [|x a IH]; simpl; [reflexivity|]. rewrite N.eqb_refl. exact IH. Qed.
Lemma nattr_eqb_refl x : nattr_eqb x x = true.
Proof. unfold nattr_eqb. rewrite N.eqb_refl, Bool.eqb_reflx, !Z.eqb_refl, list_eqb_N_refl. reflexivity. Qed.
Lemma inode_eqb_refl a : inode_eqb a a = true.
Proof.
  unfold inode_eqb. rewrite !nattr_eqb_refl. simpl. destruct (i_hp a) as [hp|]; simpl; [apply list_eqb_N_refl|reflexivity].
Qed.
Lemma iedge_eqb_refl x : iedge_eqb x x = true.
Proof. unfold iedge_eqb. rewrite !Z.eqb_refl. reflexivity. Qed.

(** [index_where] returns the position of an element that satisfies the test, whenever one does *)
Lemma index_where_hit {X} (f : X -> bool) (l : list X) : forall i, (exists x, In x l /\ f x = true) ->
  exists y, nth_error l (N.to_nat (index_where f l i - i)) = Some y /\ f y = true /\ (i <= index_where f l i)%N.
Proof.
  induction l as [|x r IH]; intros i (z & Iz & Fz); [destruct Iz|]. simpl.
  destruct (f x) eqn:Fx.
  - exists x. rewrite N.sub_diag. simpl. split; [reflexivity|]. split; [exact Fx|lia].
  - destruct Iz as [->|Iz]; [congruence|].
    destruct (IH (N.succ i) (ex_intro _ z (conj Iz Fz))) as (y & Ey & Fy & Hle).
    exists y. split; [|split; [exact Fy|lia]].
    replace (N.to_nat (index_where f r (N.succ i) - i)) with (S (N.to_nat (index_where f r (N.succ i) - N.succ i))) by lia.
    simpl. exact Ey.
Qed.

Lemma canon_faithful (t : its) : faithful (cn_of t) (ce_of t) t.
Proof.
  split.
  - intros n a n' b Ia Ib E. unfold cn_of in E.
    destruct (index_where_hit (fun p : N * inode => inode_eqb (snd p) a) (gnodes t) 0%N) as (y & Ey & Fy & _).
    { exists (n, a). split; [exact Ia|]. simpl. apply inode_eqb_refl. }
    destruct (index_where_hit (fun p : N * inode => inode_eqb (snd p) b) (gnodes t) 0%N) as (y' & Ey' & Fy' & _).
    { exists (n', b). split; [exact Ib|]. simpl. apply inode_eqb_refl. }
    rewrite E in Ey. rewrite Ey in Ey'. inversion Ey'; subst y'.
    destruct (inode_eqb_tuples _ _ Fy) as [A1 A2]. destruct (inode_eqb_tuples _ _ Fy') as [B1 B2]. split; congruence.
  - intros u v x u' v' z Ix Iz E. unfold ce_of in E.
    destruct (index_where_hit (fun e : N * N * iedge => iedge_eqb (snd e) x) (gedges t) 0%N) as (y & Ey & Fy & _).
    { exists (u, v, x). split; [exact Ix|]. simpl. apply iedge_eqb_refl. }
    destruct (index_where_hit (fun e : N * N * iedge => iedge_eqb (snd e) z) (gedges t) 0%N) as (y' & Ey' & Fy' & _).
    { exists (u', v', z). split; [exact Iz|]. simpl. apply iedge_eqb_refl. }
    rewrite E in Ey. rewrite Ey in Ey'. inversion Ey'; subst y'.
    apply iedge_eqb_eq in Fy. apply iedge_eqb_eq in Fy'. congruence.
Qed.

(** * membership in the list the object builds *)
Lemma in_concat_mapi {X Y} (f : nat -> X -> list Y) (l : list X) (m : X) (y : Y) :
  (forall i, In y (f i m)) -> In m l -> In y (concat (mapi f l)).
Proof.
  intros Hf. unfold mapi. generalize 0%nat. induction l as [|x r IH]; intros k I; [destruct I|]. simpl.
  apply in_or_app. destruct I as [->|I]; [left; apply Hf|right; apply IH; exact I].
Qed.

Lemma in_mapi_from_nth {X Y} (f : nat -> X -> Y) (l : list X) : forall i k x, nth_error l i = Some x -> In (f (k + i)%nat x) (mapi_from f k l).
Proof.
  induction l as [|y r IH]; intros i k x E; [destruct i; discriminate|].
  destruct i as [|i]; simpl in E.
  - inversion E; subst y. simpl. rewrite Nat.add_0_r. left. reflexivity.
  - simpl. right. replace (k + S i)%nat with (S k + i)%nat by lia. apply IH. exact E.
Qed.
Lemma in_mapi_nth {X Y} (f : nat -> X -> Y) (l : list X) i x : nth_error l i = Some x -> In (f i x) (mapi f l).
Proof. intros E. exact (in_mapi_from_nth f l i 0 x E). Qed.

Lemma in_concat_mapi_inv {X Y} (f : nat -> X -> list Y) (l : list X) (y : Y) :
  In y (concat (mapi f l)) -> exists i m, In m l /\ In y (f i m).
Proof.
  unfold mapi. generalize 0%nat. induction l as [|x r IH]; intros k I; [destruct I|]. simpl in I.
  apply in_app_or in I. destruct I as [I|I]; [exists k, x; split; [left; reflexivity|exact I]|].
  destruct (IH (S k) I) as (i & m & Im & Iy). exists i, m. split; [right; exact Im|exact Iy].
Qed.

(** without explicit pattern hydrogens every kept mapping contributes the one ITS glued along it *)
Lemma glued_val_in (rematch : nat -> hostg -> molg -> list C03_Model.mapping) (host : hostg) (rc : its) (l r : molg)
    (ms : list C03_Model.mapping) (T : its) : has_XH l = false ->
  (In T (glued_val rematch host (rc, l, r) ms) <-> exists y, In y ms /\ glue host rc y = Some T).
Proof.
  intros Hf. unfold glued_val. cbn [fst snd]. rewrite Hf. split.
  - intros IT. apply in_concat_mapi_inv in IT. destruct IT as (i & y & Iy & ITy). exists y. split; [exact Iy|].
    unfold glue_graph in ITy. cbn [fst snd flat_map] in ITy. rewrite app_nil_r in ITy.
    destruct (glue host rc y) as [Ty|]; [|destruct ITy]. destruct ITy as [->|[]]. reflexivity.
  - intros (y & Iy & Eg). apply (in_concat_mapi (glue_graph rematch host (rc, l, r) false) ms y T); [|exact Iy].
    intros i. unfold glue_graph. cbn [fst snd]. simpl. rewrite Eg. left. reflexivity.
Qed.

Lemma explicit_all_ok (gl : list its) : (forall T, In T gl -> explicit_h T <> None) -> snd (explicit_all gl) = false.
Proof.
  induction gl as [|g r IH]; intros H; simpl; [reflexivity|].
  destruct (explicit_h g) as [[g' ms]|] eqn:E; [|exfalso; exact (H g (or_introl eq_refl) E)].
  destruct (explicit_all r) as [r' c] eqn:Er. simpl. simpl in IH. apply IH. intros T I. apply H. right. exact I.
Qed.
Lemma explicit_all_in (gl : list its) : snd (explicit_all gl) = false -> forall T, In T gl ->
  exists T' ms, explicit_h T = Some (T', ms) /\ In T' (fst (explicit_all gl)).
Proof.
  induction gl as [|g r IH]; intros Hc T I; [destruct I|]. simpl in Hc |- *.
  destruct (explicit_h g) as [[g' ms]|] eqn:Eg; [|simpl in Hc; discriminate].
  destruct (explicit_all r) as [r' c] eqn:Er. simpl in Hc |- *. destruct I as [<-|I].
  - exists g', ms. split; [exact Eg|left; reflexivity].
  - destruct (IH Hc T I) as (T' & ms' & E' & I'). exists T', ms'. split; [exact E'|right; exact I'].
Qed.

(** a reactor without explicit pattern hydrogens: its_list is the list of glued ITS graphs, after the _explicit_h stage if there is one *)
Lemma its_of_mappings (engine : sarg -> option N -> bool -> C06_Model.graph -> C06_Model.graph -> outcome)
    (rematch : nat -> hostg -> molg -> list C03_Model.mapping) (o : ropts) (host : hostg) (rc : its) (l r : molg)
    (ms : list C03_Model.mapping) (y : C03_Model.mapping) (T : its) :
  o_explicit_h o = false -> has_XH l = false ->
  compute_mappings engine o host (rc, l, r) = Some ms -> In y ms -> glue host rc y = Some T ->
  exists gs, fst (read_its engine rematch o host (rc, l, r) fresh) = Some gs /\ In T gs.
Proof.
  intros Ho Hf Em Iy Eg. exists (glued_val rematch host (rc, l, r) ms). split.
  - unfold read_its, read_mappings. cbn [fresh s_its s_maps s_flag s_smarts]. rewrite Em. cbn [fst snd s_flag orb]. rewrite Ho. reflexivity.
  - apply (glued_val_in rematch host rc l r ms T Hf). exists y. auto.
Qed.
Lemma its_of_mappings_explicit (engine : sarg -> option N -> bool -> C06_Model.graph -> C06_Model.graph -> outcome)
    (rematch : nat -> hostg -> molg -> list C03_Model.mapping) (o : ropts) (host : hostg) (rc : its) (l r : molg)
    (ms : list C03_Model.mapping) (y : C03_Model.mapping) (T : its) :
  o_explicit_h o = true -> has_XH l = false ->
  compute_mappings engine o host (rc, l, r) = Some ms -> snd (explicit_all (glued_val rematch host (rc, l, r) ms)) = false ->
  In y ms -> glue host rc y = Some T ->
  exists gs T' ms', fst (read_its engine rematch o host (rc, l, r) fresh) = Some gs /\ In T' gs /\ explicit_h T = Some (T', ms').
Proof.
  intros Ho Hf Em NC Iy Eg.
  destruct (explicit_all_in _ NC T (proj2 (glued_val_in rematch host rc l r ms T Hf) (ex_intro _ y (conj Iy Eg)))) as (T' & ms' & EX & IT').
  exists (fst (explicit_all (glued_val rematch host (rc, l, r) ms))), T', ms'. split; [|split; [exact IT'|exact EX]].
  unfold read_its, read_mappings. cbn [fresh s_its s_maps s_flag s_smarts]. rewrite Em. cbn [fst snd s_flag orb].
  change (concat (mapi (glue_graph rematch host (rc, l, r) (has_XH l)) ms)) with (glued_val rematch host (rc, l, r) ms).
  rewrite Ho. destruct (explicit_all (glued_val rematch host (rc, l, r) ms)) as [gs c]. simpl in NC. subst c. reflexivity.
Qed.
