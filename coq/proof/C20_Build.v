(** C20 — the extended Petri net built from (vertices, edges, flow) and what a firing sequence of it
    means for the pathway: soundness of [is_realizable] in terms of the edge list itself ([is_realizable_sound]), and
    its completeness with the bounds stated on the extended net ([is_realizable_complete]). *)
From Coq Require Import ZArith List Lia.
Import ListNotations.
From SK Require Import model.C20_Model proof.C20_Spec proof.C20_Petri proof.C20_Bfs.
Local Open Scope Z_scope.

Lemma memN_spec x l : memN x l = true <-> In x l.
Proof.
  unfold memN. rewrite existsb_exists. split.
  - intros [y [H1 H2]]. apply N.eqb_eq in H2. now subst.
  - intros H. exists x. split; auto. apply N.eqb_refl.
Qed.

Lemma NoDup_snoc (l : list N) x : NoDup l -> ~ In x l -> NoDup (l ++ [x]).
Proof.
  induction 1; intros Hx; simpl.
  - constructor; [simpl; tauto|constructor].
  - constructor.
    + rewrite in_app_iff. simpl. intros [Hi|[E|[]]]; [tauto|]. subst. apply Hx. simpl; auto.
    + apply IHNoDup. intros Hi. apply Hx. simpl; auto.
Qed.

Lemma add_place_in nt q p : In p (pn_places (add_place nt q)) <-> In p (pn_places nt) \/ p = q.
Proof.
  unfold add_place. destruct (memN q (pn_places nt)) eqn:E; simpl.
  - apply memN_spec in E. split; [auto|]. intros [H| ->]; auto.
  - rewrite in_app_iff. simpl. split; intros [H|H]; auto. destruct H as [->|[]]; auto.
Qed.

Lemma add_place_trans nt q : pn_trans (add_place nt q) = pn_trans nt.
Proof. unfold add_place. destruct (memN q (pn_places nt)); reflexivity. Qed.

Lemma add_place_nodup nt q : NoDup (pn_places nt) -> NoDup (pn_places (add_place nt q)).
Proof.
  unfold add_place. destruct (memN q (pn_places nt)) eqn:E; simpl; auto.
  intros H. apply NoDup_snoc; auto. intros Hi. apply memN_spec in Hi. congruence.
Qed.

Lemma fold_add_place_in l : forall nt p,
  In p (pn_places (fold_left add_place l nt)) <-> In p (pn_places nt) \/ In p l.
Proof.
  induction l as [|q l IH]; intros nt p; simpl; [tauto|].
  rewrite IH, add_place_in. split; [intros [[H|H]|H]|intros [H|[H|H]]]; subst; auto.
Qed.

Lemma fold_add_place_trans l : forall nt, pn_trans (fold_left add_place l nt) = pn_trans nt.
Proof. induction l; intros nt; simpl; auto. now rewrite IHl, add_place_trans. Qed.

Lemma fold_add_place_nodup l : forall nt,
  NoDup (pn_places nt) -> NoDup (pn_places (fold_left add_place l nt)).
Proof. induction l; intros nt H; simpl; auto. apply IHl, add_place_nodup, H. Qed.

Lemma upsert_fresh ts t : (forall u, In u ts -> t_id u <> t_id t) -> upsert ts t = ts ++ [t].
Proof.
  induction ts as [|u ts IH]; intros H; simpl; auto.
  destruct (N.eqb_spec (t_id u) (t_id t)) as [E|_].
  - exfalso. apply (H u); simpl; auto.
  - f_equal. apply IH. intros; apply H; simpl; auto.
Qed.

Lemma set_keys d p c q : In q (map fst (set d p c)) <-> In q (map fst d) \/ q = p.
Proof.
  induction d as [|[r c'] d IH]; simpl.
  - split; [intros [H|[]]|intros [[]|H]]; auto.
  - destruct (N.eqb_spec r p) as [->|_]; simpl.
    + split; [auto|intros [H|H]; auto].
    + rewrite IH. symmetry. apply or_assoc.
Qed.

Lemma set_fresh d p c : ~ In p (map fst d) -> set d p c = d ++ [(p, c)].
Proof.
  induction d as [|[r c'] d IH]; simpl; intros H; auto.
  destruct (N.eqb_spec r p) as [->|_]; [tauto|]. f_equal. apply IH. tauto.
Qed.

Lemma weight_app d d' q : weight (d ++ d') q = weight d q + weight d' q.
Proof. induction d as [|[r c] d IH]; simpl; [reflexivity|]. rewrite IH. lia. Qed.

Lemma sp_ext s j : sp_place s <> ext_place j. Proof. unfold sp_place, ext_place. lia. Qed.
Lemma sp_tgt s j : sp_place s <> tgt_place j. Proof. unfold sp_place, tgt_place. lia. Qed.
Lemma ext_tgt i j : ext_place i <> tgt_place j. Proof. unfold ext_place, tgt_place. lia. Qed.
Lemma sp_inj s s' : sp_place s = sp_place s' -> s = s'. Proof. unfold sp_place. lia. Qed.
Lemma ext_inj s s' : ext_place s = ext_place s' -> s = s'. Proof. unfold ext_place. lia. Qed.
Lemma tgt_inj s s' : tgt_place s = tgt_place s' -> s = s'. Proof. unfold tgt_place. lia. Qed.

Lemma eqb_inj (f : N -> N) : (forall a b, f a = f b -> a = b) -> forall a b, N.eqb (f a) (f b) = N.eqb a b.
Proof.
  intros Hf a b. destruct (N.eqb_spec a b) as [->|E]; [apply N.eqb_refl|].
  apply N.eqb_neq. intros H. apply E, Hf, H.
Qed.

Lemma in_pos_part d p w : In (p, w) (pos_part d) <-> exists s, p = sp_place s /\ In (s, w) d /\ 0 < w.
Proof.
  unfold pos_part. rewrite in_map_iff. split.
  - intros [[s w'] [E Hin]]. simpl in E. injection E as <- <-.
    apply filter_In in Hin as [Hin Hw]. apply Z.ltb_lt in Hw. eauto.
  - intros (s & -> & Hin & Hw). exists (s, w). split; auto.
    apply filter_In. split; auto. now apply Z.ltb_lt.
Qed.

Lemma pos_part_keys d p : In p (map fst (pos_part d)) -> exists s, p = sp_place s.
Proof.
  unfold pos_part. rewrite map_map. simpl. intros H. apply in_map_iff in H as [[s w] [<- _]]. eauto.
Qed.

Lemma weight_pos_part d s : weight (pos_part d) (sp_place s) = pweight d s.
Proof.
  unfold pos_part, pweight. induction (filter _ d) as [|[q c] l IH]; simpl; auto.
  now rewrite IH, (eqb_inj sp_place sp_inj).
Qed.

Lemma weight_pos_part_other d p : (forall s, p <> sp_place s) -> weight (pos_part d) p = 0.
Proof. intros H. apply weight_notin. intros Hin. apply pos_part_keys in Hin as [s ->]. now apply (H s). Qed.

Definition item := (N * edge * Z)%type.
Definition it_id (it : item) : N := fst (fst it).
Definition it_edge (it : item) : edge := snd (fst it).
Definition it_pre (it : item) : dict := set (pos_part (fst (it_edge it))) (ext_place (it_id it)) 1.
Definition it_post (it : item) : dict := set (pos_part (snd (it_edge it))) (tgt_place (it_id it)) 1.
Definition mk_trans (it : item) : transition := T (it_id it) (it_pre it) (it_post it).

Definition net_step (nt : petri) (it : item) : petri :=
  add_transition (add_place (add_place nt (ext_place (it_id it))) (tgt_place (it_id it)))
                 (it_id it) (it_pre it) (it_post it).

Definition kfold (key : N -> N) (items : list item) (m : dict) : dict :=
  fold_left (fun m it => set m (key (it_id it)) (snd it)) items m.

Lemma fold_build items : forall st,
  fold_left build_edge items st =
  Built (fold_left net_step items (b_net st)) (kfold ext_place items (b_M0 st)) (kfold tgt_place items (b_MT st)).
Proof.
  induction items as [|[[j [tail head]] f] items IH]; intros st; simpl; [now destruct st|]. now rewrite IH.
Qed.

Lemma it_pre_eq it : it_pre it = pos_part (fst (it_edge it)) ++ [(ext_place (it_id it), 1)].
Proof.
  apply set_fresh. intros H. apply pos_part_keys in H as [s H]. symmetry in H. now apply sp_ext in H.
Qed.

Lemma it_post_eq it : it_post it = pos_part (snd (it_edge it)) ++ [(tgt_place (it_id it), 1)].
Proof.
  apply set_fresh. intros H. apply pos_part_keys in H as [s H]. symmetry in H. now apply sp_tgt in H.
Qed.

Lemma pre_covered it (f : N -> Z) :
  (forall p w, In (p, w) (it_pre it) -> w <= f p) <->
  covers (fun s => f (sp_place s)) (fst (it_edge it)) /\ 1 <= f (ext_place (it_id it)).
Proof.
  rewrite it_pre_eq. split.
  - intros H. split.
    + intros s w Hin Hw. apply H, in_app_iff. left. apply in_pos_part. eauto.
    + apply H, in_app_iff. right. simpl. auto.
  - intros [Hc He] p w Hin. apply in_app_iff in Hin as [Hin|[E|[]]].
    + apply in_pos_part in Hin as (s & -> & Hin & Hw). now apply Hc.
    + now injection E as <- <-.
Qed.

Lemma it_pre_sp it s : weight (it_pre it) (sp_place s) = pweight (fst (it_edge it)) s.
Proof.
  rewrite it_pre_eq, weight_app, weight_pos_part. simpl.
  rewrite (proj2 (N.eqb_neq _ _)) by (apply not_eq_sym, sp_ext). lia.
Qed.
Lemma it_post_sp it s : weight (it_post it) (sp_place s) = pweight (snd (it_edge it)) s.
Proof.
  rewrite it_post_eq, weight_app, weight_pos_part. simpl.
  rewrite (proj2 (N.eqb_neq _ _)) by (apply not_eq_sym, sp_tgt). lia.
Qed.
Lemma it_pre_ext it j : weight (it_pre it) (ext_place j) = if N.eqb (it_id it) j then 1 else 0.
Proof.
  rewrite it_pre_eq, weight_app, weight_pos_part_other by (intros s; apply not_eq_sym, sp_ext). simpl.
  rewrite (eqb_inj ext_place ext_inj). lia.
Qed.
Lemma it_post_ext it j : weight (it_post it) (ext_place j) = 0.
Proof.
  rewrite it_post_eq, weight_app, weight_pos_part_other by (intros s; apply not_eq_sym, sp_ext). simpl.
  rewrite (proj2 (N.eqb_neq _ _)) by (apply not_eq_sym, ext_tgt). lia.
Qed.
Lemma it_pre_tgt it j : weight (it_pre it) (tgt_place j) = 0.
Proof.
  rewrite it_pre_eq, weight_app, weight_pos_part_other by (intros s; apply not_eq_sym, sp_tgt). simpl.
  rewrite (proj2 (N.eqb_neq _ _)) by apply ext_tgt. lia.
Qed.
Lemma it_post_tgt it j : weight (it_post it) (tgt_place j) = if N.eqb (it_id it) j then 1 else 0.
Proof.
  rewrite it_post_eq, weight_app, weight_pos_part_other by (intros s; apply not_eq_sym, sp_tgt). simpl.
  rewrite (eqb_inj tgt_place tgt_inj). lia.
Qed.

(** a place an item mentions: a key of its transition (the supply and the target place are among them) *)
Definition mentions (it : item) (p : N) : Prop := In p (map fst (it_pre it)) \/ In p (map fst (it_post it)).

Lemma mentions_ext it : mentions it (ext_place (it_id it)).
Proof. left. apply set_keys. auto. Qed.
Lemma mentions_tgt it : mentions it (tgt_place (it_id it)).
Proof. right. apply set_keys. auto. Qed.

Lemma mentions_shape it p : mentions it p ->
  (exists s, p = sp_place s) \/ p = ext_place (it_id it) \/ p = tgt_place (it_id it).
Proof. intros [H|H]; apply set_keys in H as [H|H]; auto; left; now apply pos_part_keys in H. Qed.

Lemma net_step_in nt it p : In p (pn_places (net_step nt it)) <-> In p (pn_places nt) \/ mentions it p.
Proof.
  unfold net_step, add_transition. simpl. rewrite fold_add_place_in, !add_place_in, in_app_iff.
  split; [|intros [H|H]; auto]. intros [[[H| ->]| ->]|H]; auto using mentions_ext, mentions_tgt.
Qed.

Lemma net_step_nodup nt it : NoDup (pn_places nt) -> NoDup (pn_places (net_step nt it)).
Proof.
  intros H. unfold net_step, add_transition. simpl.
  apply fold_add_place_nodup, add_place_nodup, add_place_nodup, H.
Qed.

Lemma net_step_trans nt it : pn_trans (net_step nt it) = upsert (pn_trans nt) (mk_trans it).
Proof.
  unfold net_step, add_transition. simpl. now rewrite fold_add_place_trans, !add_place_trans.
Qed.

Lemma fold_net_step_in items : forall nt p,
  In p (pn_places (fold_left net_step items nt)) <->
  In p (pn_places nt) \/ exists it, In it items /\ mentions it p.
Proof.
  induction items as [|it items IH]; intros nt p; simpl.
  - split; [auto|]. intros [H|[it [[] _]]]. exact H.
  - rewrite IH, net_step_in. split.
    + intros [[H|H]|[it' [H1 H2]]]; eauto.
    + intros [H|[it' [[<-|H1] H2]]]; eauto.
Qed.

Lemma fold_net_step_nodup items : forall nt,
  NoDup (pn_places nt) -> NoDup (pn_places (fold_left net_step items nt)).
Proof. induction items; intros nt H; simpl; auto. apply IHitems, net_step_nodup, H. Qed.

Lemma fold_net_step_trans items : forall nt,
  NoDup (map it_id items) ->
  (forall u it, In u (pn_trans nt) -> In it items -> t_id u <> it_id it) ->
  pn_trans (fold_left net_step items nt) = pn_trans nt ++ map mk_trans items.
Proof.
  induction items as [|it items IH]; intros nt Hnd Hnew; simpl.
  - now rewrite app_nil_r.
  - inversion Hnd as [|? ? Hit Hnd']; subst.
    assert (E : pn_trans (net_step nt it) = pn_trans nt ++ [mk_trans it]).
    { rewrite net_step_trans. apply upsert_fresh. intros u Hu. apply Hnew; simpl; auto. }
    rewrite IH, E, <- app_assoc; auto.
    intros u it' Hu Hit'. rewrite E in Hu. apply in_app_iff in Hu as [Hu|[<-|[]]].
    + apply Hnew; simpl; auto.
    + simpl. intros E'. apply Hit. rewrite E'. now apply in_map.
Qed.

Lemma in_items es : forall j0 fl it, In it (zip_flow (index_from j0 es) fl) <->
  exists k, nth_error es k = Some (it_edge it) /\ it_id it = (j0 + N.of_nat k)%N /\ snd it = nth k fl 0.
Proof.
  induction es as [|e es IH]; intros j0 fl it; simpl.
  - split; [tauto|]. intros [[|k] [H _]]; discriminate.
  - rewrite IH. split.
    + intros [<-|(k & H1 & H2 & H3)].
      * exists 0%nat. simpl. split; auto. split; [unfold it_id; simpl; lia|]. destruct fl; reflexivity.
      * exists (S k). split; auto. split; [lia|]. rewrite H3. destruct fl; simpl; auto. destruct k; reflexivity.
    + intros ([|k] & H1 & H2 & H3); simpl in H1.
      * left. destruct it as [[j e'] f]. unfold it_id, it_edge in *. simpl in *.
        injection H1 as ->. f_equal; [f_equal; lia|]. rewrite H3. destruct fl; reflexivity.
      * right. exists k. split; auto. split; [lia|]. rewrite H3. destruct fl; simpl; auto. destruct k; reflexivity.
Qed.

Lemma items_nodup_ids es : forall j0 fl, NoDup (map it_id (zip_flow (index_from j0 es) fl)).
Proof.
  induction es as [|e es IH]; intros j0 fl; simpl; constructor; [|apply IH].
  intros H. apply in_map_iff in H as [it [E Hin]]. apply in_items in Hin as (k & _ & Hid & _).
  unfold it_id at 2 in E. simpl in E. lia.
Qed.

Lemma kfold_other key items : forall m p,
  (forall it, In it items -> key (it_id it) <> p) -> get (kfold key items m) p = get m p.
Proof.
  induction items as [|it items IH]; intros m p H; simpl; auto.
  unfold kfold in *. simpl. rewrite IH by (intros; apply H; simpl; auto).
  apply get_set_other. apply H. simpl; auto.
Qed.

Lemma kfold_at key items : (forall a b, key a = key b -> a = b) ->
  forall m it, NoDup (map it_id items) -> In it items ->
  get (kfold key items m) (key (it_id it)) = snd it.
Proof.
  intros Hinj. induction items as [|it0 items IH]; intros m it Hnd Hin; simpl in *; [tauto|].
  inversion Hnd as [|? ? Hnew Hnd']; subst. destruct Hin as [->|Hin].
  - unfold kfold. simpl. fold (kfold key items (set m (key (it_id it)) (snd it))).
    rewrite kfold_other; [apply get_set_same|].
    intros it' Hit' E. apply Hinj in E. apply Hnew. rewrite <- E. now apply in_map.
  - unfold kfold. simpl. apply IH; auto.
Qed.

Lemma kfold_keys key items : forall m p, In p (map fst (kfold key items m)) ->
  In p (map fst m) \/ exists it, In it items /\ p = key (it_id it).
Proof.
  induction items as [|it items IH]; intros m p H; simpl in *; auto.
  unfold kfold in H. simpl in H. apply IH in H as [H|[it' [H1 H2]]]; eauto.
  apply set_keys in H as [H|H]; eauto.
Qed.

Lemma zero_fold vs : forall m, (forall p, get m p = 0) ->
  forall p, get (fold_left (fun m v => set m (sp_place v) 0) vs m) p = 0.
Proof.
  induction vs as [|v vs IH]; intros m H p; simpl; auto.
  apply IH. intros q. rewrite get_set. destruct (N.eqb (sp_place v) q); auto.
Qed.

Lemma zero_fold_keys vs : forall m p,
  In p (map fst (fold_left (fun m v => set m (sp_place v) 0) vs m)) ->
  In p (map fst m) \/ In p (map sp_place vs).
Proof.
  induction vs as [|v vs IH]; intros m p H; simpl in *; auto.
  apply IH in H as [H|H]; auto. apply set_keys in H as [H|H]; auto.
Qed.

Lemma ordering_nil_inv edges m m' : ordering edges m [] m' -> forall s, m s = m' s.
Proof. intros H. now inversion H. Qed.

Lemma ordering_cons_inv edges m j sq m' : ordering edges m (j :: sq) m' ->
  exists e, nth_error edges (N.to_nat j) = Some e /\ covers m (fst e) /\ ordering edges (fire_edge e m) sq m'.
Proof. intros H. inversion H; subst. eauto. Qed.

Section Built.
Variables (vertices : list N) (edges : list edge) (flow : list Z).

Let items := zip_flow (index_from 0%N edges) flow.
Let base := fold_left (fun m v => set m (sp_place v) 0) vertices [].
Let b := build_petri_net_from_flow vertices edges flow.
Let net := b_net b.
Let places := pn_places net.

Lemma b_M0_eq : b_M0 b = kfold ext_place items base.
Proof. unfold b, build_petri_net_from_flow. now rewrite fold_build. Qed.
Lemma b_MT_eq : b_MT b = kfold tgt_place items base.
Proof. unfold b, build_petri_net_from_flow. now rewrite fold_build. Qed.

Lemma base_zero p : get base p = 0.
Proof. unfold base. apply zero_fold. reflexivity. Qed.

Lemma items_nodup : NoDup (map it_id items).
Proof. apply items_nodup_ids. Qed.

Lemma item_edge it : In it items ->
  nth_error edges (N.to_nat (it_id it)) = Some (it_edge it) /\ snd it = nth (N.to_nat (it_id it)) flow 0.
Proof.
  intros H. apply in_items in H as (k & H1 & H2 & H3).
  replace (N.to_nat (it_id it)) with k by lia. auto.
Qed.

Lemma item_of_index j : (N.to_nat j < length edges)%nat -> exists it, In it items /\ it_id it = j.
Proof.
  intros H. destruct (nth_error edges (N.to_nat j)) as [e|] eqn:E; [|apply nth_error_None in E; lia].
  exists (j, e, nth (N.to_nat j) flow 0). split; [|reflexivity].
  apply in_items. exists (N.to_nat j). unfold it_id. simpl. split; auto. split; [lia|reflexivity].
Qed.

Lemma b_net_eq : net = fold_left net_step items (fold_left add_place (map sp_place vertices) empty_petri).
Proof. unfold net, b, build_petri_net_from_flow. now rewrite fold_build. Qed.

Lemma trans_eq : pn_trans net = map mk_trans items.
Proof.
  rewrite b_net_eq, fold_net_step_trans, fold_add_place_trans; [reflexivity|apply items_nodup|].
  intros u it Hu. rewrite fold_add_place_trans in Hu. destruct Hu.
Qed.

Lemma places_nodup : NoDup places.
Proof.
  unfold places. rewrite b_net_eq. apply fold_net_step_nodup, fold_add_place_nodup. constructor.
Qed.

Lemma places_iff p : In p places <-> In p (map sp_place vertices) \/ exists it, In it items /\ mentions it p.
Proof.
  unfold places. rewrite b_net_eq, fold_net_step_in, fold_add_place_in. simpl.
  split; [intros [[[]|H]|H]|intros [H|H]]; auto.
Qed.

Lemma places_mentions it p : In it items -> mentions it p -> In p places.
Proof. intros. apply places_iff. eauto. Qed.

Lemma places_shape p : In p places ->
  (exists s, p = sp_place s) \/
  (exists it, In it items /\ (p = ext_place (it_id it) \/ p = tgt_place (it_id it))).
Proof.
  intros H. apply places_iff in H as [H|[it [Hit H]]].
  - left. apply in_map_iff in H as [v [<- _]]. eauto.
  - apply mentions_shape in H as [H|H]; eauto.
Qed.

Lemma keys_in_places p : In p (map fst (b_MT b) ++ map fst (b_M0 b)) -> In p places.
Proof.
  assert (Hbase : forall q, In q (map fst base) -> In q places).
  { intros q Hq. apply zero_fold_keys in Hq as [[]|Hq]. apply places_iff. auto. }
  rewrite b_MT_eq, b_M0_eq, in_app_iff.
  intros [H|H]; apply kfold_keys in H as [H|[it [Hit ->]]]; auto;
    apply (places_mentions it); auto using mentions_ext, mentions_tgt.
Qed.

Lemma M0_sp s : get (b_M0 b) (sp_place s) = 0.
Proof. rewrite b_M0_eq, kfold_other; [apply base_zero|]. intros it _ H. symmetry in H. now apply sp_ext in H. Qed.
Lemma MT_sp s : get (b_MT b) (sp_place s) = 0.
Proof. rewrite b_MT_eq, kfold_other; [apply base_zero|]. intros it _ H. symmetry in H. now apply sp_tgt in H. Qed.
Lemma M0_tgt j : get (b_M0 b) (tgt_place j) = 0.
Proof. rewrite b_M0_eq, kfold_other; [apply base_zero|]. intros it _ H. now apply ext_tgt in H. Qed.
Lemma MT_ext j : get (b_MT b) (ext_place j) = 0.
Proof. rewrite b_MT_eq, kfold_other; [apply base_zero|]. intros it _ H. symmetry in H. now apply ext_tgt in H. Qed.
Lemma M0_ext it : In it items -> get (b_M0 b) (ext_place (it_id it)) = snd it.
Proof. intros H. rewrite b_M0_eq. apply kfold_at; auto using items_nodup. apply ext_inj. Qed.
Lemma MT_tgt it : In it items -> get (b_MT b) (tgt_place (it_id it)) = snd it.
Proof. intros H. rewrite b_MT_eq. apply kfold_at; auto using items_nodup. apply tgt_inj. Qed.

(** the marking a tuple stands for *)
Definition mv (mt : tuple) (p : N) : Z := get (combine places mt) p.
Definition sm (mt : tuple) : smarking := fun s => mv mt (sp_place s).

Lemma mv_notin mt p : ~ In p places -> mv mt p = 0.
Proof. apply get_combine_notin. Qed.

Lemma mv_tuple d p : (In p (map fst d) -> In p places) -> mv (marking_to_tuple net d) p = get d p.
Proof.
  intros H. destruct (in_dec N.eq_dec p places) as [Hin|Hni].
  - now apply get_combine_map.
  - rewrite mv_notin by exact Hni. symmetry. apply get_notin. tauto.
Qed.

Lemma mv_start p : mv (marking_to_tuple net (b_M0 b)) p = get (b_M0 b) p.
Proof. apply mv_tuple. intros H. apply keys_in_places, in_app_iff. auto. Qed.

Lemma mv_target p : mv (marking_to_tuple net (b_MT b)) p = get (b_MT b) p.
Proof. apply mv_tuple. intros H. apply keys_in_places, in_app_iff. auto. Qed.

Lemma sm_start s : sm (marking_to_tuple net (b_M0 b)) s = 0.
Proof. unfold sm. rewrite mv_start. apply M0_sp. Qed.

Lemma sm_target s : sm (marking_to_tuple net (b_MT b)) s = 0.
Proof. unfold sm. rewrite mv_target. apply MT_sp. Qed.

(** one firing of the transition of an item changes the marking by post minus pre at EVERY place: outside the place
    list both tuples read 0 and the transition has no weight *)
Lemma step_mv it mt m1 : In it items -> tstep net (mk_trans it) mt = Some m1 ->
  forall p, mv m1 p = mv mt p - weight (it_pre it) p + weight (it_post it) p.
Proof.
  intros Hit Hstep p. apply tstep_Some in Hstep as [_ ->]. fold places.
  destruct (in_dec N.eq_dec p places) as [Hin|Hni].
  - unfold mv at 1, marking_to_tuple. fold places. rewrite get_combine_map by exact Hin. apply fire_t_spec.
  - rewrite !mv_notin, !weight_notin; auto; intros H; apply Hni, (places_mentions it); auto; [right|left]; exact H.
Qed.

Lemma step_covered it mt m1 : tstep net (mk_trans it) mt = Some m1 ->
  covers (sm mt) (fst (it_edge it)) /\ 1 <= mv mt (ext_place (it_id it)).
Proof.
  intros Hstep. apply tstep_Some in Hstep as [Hen _].
  apply (pre_covered it (mv mt)), (proj1 (enabled_t_spec (mk_trans it) _)), Hen.
Qed.

Lemma step_sm it mt m1 : In it items -> tstep net (mk_trans it) mt = Some m1 ->
  forall s, sm m1 s = fire_edge (it_edge it) (sm mt) s.
Proof. intros Hit Hstep s. unfold sm, fire_edge. now rewrite (step_mv it mt), it_pre_sp, it_post_sp. Qed.

Lemma step_tgt it mt m1 : In it items -> tstep net (mk_trans it) mt = Some m1 ->
  forall j, mv m1 (tgt_place j) = mv mt (tgt_place j) + (if N.eqb (it_id it) j then 1 else 0).
Proof. intros Hit Hstep j. rewrite (step_mv it mt), it_pre_tgt, it_post_tgt by assumption. lia. Qed.

Lemma step_ext it mt m1 : In it items -> tstep net (mk_trans it) mt = Some m1 ->
  forall j, mv m1 (ext_place j) = mv mt (ext_place j) - (if N.eqb (it_id it) j then 1 else 0).
Proof. intros Hit Hstep j. rewrite (step_mv it mt), it_pre_ext, it_post_ext by assumption. lia. Qed.

(** pointwise-equal markings are interchangeable in [ordering] *)
Lemma ordering_ext sq : forall m1 m2 m' m'',
  (forall s, m1 s = m2 s) -> (forall s, m' s = m'' s) ->
  ordering edges m1 sq m' -> ordering edges m2 sq m''.
Proof.
  induction sq as [|j sq IH]; intros m1 m2 m' m'' H1 H2 Ho.
  - constructor. intros s. rewrite <- H1, <- H2. now apply (ordering_nil_inv edges).
  - apply ordering_cons_inv in Ho as (e & Hnth & Hcov & Ho). apply ord_cons with (e := e); auto.
    + intros s w Hin Hw. rewrite <- H1. auto.
    + eapply IH; [|exact H2|exact Ho]. intros s. unfold fire_edge. now rewrite H1.
Qed.

Lemma count_cons j j' sq : count j' (j :: sq) = (if N.eqb j j' then 1 else 0) + count j' sq.
Proof.
  unfold count. simpl. destruct (N.eq_dec j j') as [E|E].
  - subst. rewrite N.eqb_refl. lia.
  - apply N.eqb_neq in E. rewrite E. lia.
Qed.

(** a firing sequence of the extended net is an ordering of the pathway; the target places count the firings up, the
    supply places count them down *)
Lemma path_ordering m sq m' : path net m sq m' ->
  ordering edges (sm m) sq (sm m') /\
  (forall j, mv m' (tgt_place j) = mv m (tgt_place j) + count j sq) /\
  (forall j, mv m' (ext_place j) = mv m (ext_place j) - count j sq) /\
  (forall j, In j sq -> (N.to_nat j < length edges)%nat).
Proof.
  induction 1 as [m|m t m1 s m' Ht Hstep Hp (IH1 & IH2 & IH3 & IH4)].
  - split; [constructor; auto|]. split; [|split]; try (intros; unfold count; simpl; lia). intros j [].
  - rewrite trans_eq in Ht. apply in_map_iff in Ht as [it [<- Hit]].
    destruct (item_edge it Hit) as [Hedge _]. simpl.
    split; [|split; [|split]].
    + apply ord_cons with (e := it_edge it); auto.
      * apply (step_covered it m m1 Hstep).
      * eapply ordering_ext; [|reflexivity|exact IH1]. apply (step_sm it m m1 Hit Hstep).
    + intros j. rewrite IH2, (step_tgt it m m1 Hit Hstep), count_cons. lia.
    + intros j. rewrite IH3, (step_ext it m m1 Hit Hstep), count_cons. lia.
    + intros j [<-|Hj]; auto. apply nth_error_Some. congruence.
Qed.

Lemma is_realizable_sound max_states max_depth sq :
  bo_verdict (is_realizable b max_states max_depth) = Found sq -> realizes edges flow sq.
Proof.
  unfold is_realizable. fold net. destruct (markings_equal (b_M0 b) (b_MT b)) eqn:Eq.
  - (* equal markings: every flow value is 0, read off at the target places (a key of MT compared with M0, or absent) *)
    simpl. intros H. injection H as <-. split; [constructor; auto|]. split; [|intros j []].
    intros j Hj. destruct (item_of_index j Hj) as [it [Hit <-]].
    destruct (item_edge it Hit) as [_ <-]. rewrite <- (MT_tgt it Hit).
    destruct (in_dec N.eq_dec (tgt_place (it_id it)) (map fst (b_MT b))) as [Hin|Hni].
    + unfold markings_equal in Eq. rewrite forallb_forall in Eq.
      specialize (Eq _ (in_or_app _ _ _ (or_introl Hin))). rewrite M0_tgt in Eq. now apply Z.eqb_eq in Eq.
    + symmetry. now apply get_notin.
  - intros H. apply bfs_sound with (start := marking_to_tuple net (b_M0 b)) in H.
    + destruct (path_ordering _ _ _ H) as (Ho & Hc & _ & Hr). split; [|split]; auto.
      * eapply ordering_ext; [apply sm_start|apply sm_target|exact Ho].
      * intros j Hj. destruct (item_of_index j Hj) as [it [Hit <-]].
        destruct (item_edge it Hit) as [_ <-].
        specialize (Hc (it_id it)). rewrite mv_start, mv_target, M0_tgt, MT_tgt in Hc by exact Hit. lia.
    + intros m s [E|[]]. injection E as <- <-. constructor.
Qed.

Lemma start_ne_target : markings_equal (b_M0 b) (b_MT b) = false ->
  marking_to_tuple net (b_M0 b) <> marking_to_tuple net (b_MT b).
Proof.
  intros Hf E. enough (markings_equal (b_M0 b) (b_MT b) = true) by congruence.
  unfold markings_equal. apply forallb_forall. intros p _. apply Z.eqb_eq.
  now rewrite <- mv_start, <- mv_target, E.
Qed.

Lemma is_realizable_complete max_states max_depth (R : list tuple) :
  let start := marking_to_tuple net (b_M0 b) in
  let target := marking_to_tuple net (b_MT b) in
  (exists sq, path net start sq target) ->
  (forall s m, path net start s m -> In m R) ->
  (N.of_nat (length R) <= max_states)%N ->
  (forall s m, path net start s m -> (N.of_nat (length s) <= max_depth)%N) ->
  exists sq', bo_verdict (is_realizable b max_states max_depth) = Found sq'.
Proof.
  intros start target Hgoal HR HRlen Hdepth. unfold is_realizable. fold net.
  destruct (markings_equal (b_M0 b) (b_MT b)) eqn:Eq.
  - exists []. reflexivity.
  - apply bfs_complete with (R := R); auto. now apply start_ne_target.
Qed.
End Built.

(** non-vacuity: a realizable pathway  0 -> A, A -> B, B -> 0  with flow (1,1,1) *)
Example realizable_example :
  let edges := [([], [(0%N, 1)]); ([(0%N, 1)], [(1%N, 1)]); ([(1%N, 1)], [])] in
  bo_verdict (is_realizable (build_petri_net_from_flow [0%N; 1%N] edges [1; 1; 1]) 100 100)
  = Found [0%N; 1%N; 2%N].
Proof. vm_compute. reflexivity. Qed.

Example unrealizable_example :      (* A + X -> 2X needs a borrowed X *)
  let edges := [([(0%N, 1); (1%N, 1)], [(1%N, 2)]); ([], [(0%N, 1)]); ([(1%N, 1)], [])] in
  bo_verdict (is_realizable (build_petri_net_from_flow [0%N; 1%N] edges [1; 1; 1]) 100 100) = NotFound.
Proof. vm_compute. reflexivity. Qed.

(** non-vacuity of the completeness premises: the pathway with the single edge 0 -> 0 fired once *)
Example complete_premises_satisfiable :
  let b := build_petri_net_from_flow [] [([], [])] [1] in
  let net := b_net b in
  let start := marking_to_tuple net (b_M0 b) in
  let target := marking_to_tuple net (b_MT b) in
  (exists sq, path net start sq target) /\
  (forall s m, path net start s m -> In m [start; target]) /\
  (N.of_nat (length [start; target]) <= 2)%N /\
  (forall s m, path net start s m -> (N.of_nat (length s) <= 1)%N) /\
  bo_verdict (is_realizable b 2 1) = Found [0%N].
Proof.
  intros b net start target.
  assert (H1 : forall t m1, In t (pn_trans net) -> tstep net t start = Some m1 -> m1 = target).
  { intros t m1 [<-|[]]. vm_compute. intros H. inversion H. reflexivity. }
  assert (H2 : forall t m1, In t (pn_trans net) -> tstep net t target = Some m1 -> False).
  { intros t m1 [<-|[]]. vm_compute. discriminate. }
  assert (H3 : forall s m, path net start s m ->
               (m = start /\ s = []) \/ (m = target /\ length s = 1%nat)).
  { intros [|j s] m Hp; apply path_inv in Hp; [auto|right].
    destruct Hp as (t & m1 & _ & Ht & Hs & Hp). apply (H1 t m1 Ht) in Hs. subst m1.
    destruct s as [|j' s]; apply path_inv in Hp; [auto|].
    destruct Hp as (t' & m2 & _ & Ht' & Hs' & _). destruct (H2 t' m2 Ht' Hs'). }
  split; [|split; [|split; [|split]]].
  - exists [0%N]. apply (path_cons net start (T 0 [(1%N, 1)] [(2%N, 1)]) target [] target).
    + vm_compute. auto.
    + vm_compute. reflexivity.
    + constructor.
  - intros s m Hp. destruct (H3 s m Hp) as [[-> _]|[-> _]]; simpl; auto.
  - simpl. lia.
  - intros s m Hp. destruct (H3 s m Hp) as [[_ ->]|[_ E]]; simpl; [lia|rewrite E; lia].
  - vm_compute. reflexivity.
Qed.

Example fuel_example :
  bo_verdict (is_realizable (build_petri_net_from_flow [0%N] [([], [(0%N, 1)])] [1]) 0 5) = NotFound.
Proof. vm_compute. reflexivity. Qed.
