(** C03 — the default mode BACKWARDS from the template: the reactor prepares [invert_template tpl]; every hypothesis the
    default-mode capstone puts on the prepared template transfers from [tpl] (same element on both sides, well formed,
    bonds closed, [tpl_condition]), so the property holds end to end backwards under hypotheses on the template as written. *)
From Coq Require Import List NArith ZArith Bool Lia.
From SK Require Import lib.Tok lib.LGraph model.C03_Model model.C03_Order model.C03_Reactor proof.C03_Proof proof.C03_Glue
                       proof.C03_Backward proof.C03_Skeleton proof.C03_StripExact proof.C03_StripCor proof.C03_ReactorProof proof.C03_ReactorSpec
                       proof.C03_Capstone proof.C03_LinkDefault proof.C03_LinkImplicit.
From SK Require Import proof.C03_DefaultBalance proof.C03_DefaultEnd.
From Coq Require Import Permutation.
Import ListNotations.
Local Open Scope Z_scope.

Lemma side0_invert_G tpl : side0 iG eG (invert_template tpl) = side0 iH eH tpl.
Proof.
  assert (Hn : gnodes (side0 iG eG (invert_template tpl)) = gnodes (side0 iH eH tpl)).
  { rewrite side0_nodes_G, side0_nodes_H, invert_gnodes, map_map. reflexivity. }
  assert (He : gedges (side0 iG eG (invert_template tpl)) = gedges (side0 iH eH tpl)).
  { exact (f_equal (fun p => gedges (fst p)) (invert_decompose tpl)). }
  destruct (side0 iG eG (invert_template tpl)) as [n e], (side0 iH eH tpl) as [n' e']. cbn [gnodes gedges] in *. congruence.
Qed.
Lemma side0_invert_H tpl : side0 iH eH (invert_template tpl) = side0 iG eG tpl.
Proof.
  assert (Hn : gnodes (side0 iH eH (invert_template tpl)) = gnodes (side0 iG eG tpl)).
  { rewrite side0_nodes_G, side0_nodes_H, invert_gnodes, map_map. reflexivity. }
  assert (He : gedges (side0 iH eH (invert_template tpl)) = gedges (side0 iG eG tpl)).
  { exact (f_equal (fun p => gedges (snd p)) (invert_decompose tpl)). }
  destruct (side0 iH eH (invert_template tpl)) as [n e], (side0 iG eG tpl) as [n' e']. cbn [gnodes gedges] in *. congruence.
Qed.

Section Inv.
  Variable tpl : its.
  Hypothesis Hel : forall k a, In (k, a) (gnodes tpl) -> a_el (iH a) = a_el (iG a).

  Lemma isH_invert h : is_H_i (invert_template tpl) h = is_H_i tpl h.
  Proof.
    unfold is_H_i. rewrite invert_label. destruct (label tpl h) as [a|] eqn:E; [|reflexivity]. cbn [option_map inv_node iG inv_tuple a_el].
    unfold label in E. apply assoc_in in E. rewrite (Hel h a E). reflexivity.
  Qed.

  Lemma Hel_invert k a : In (k, a) (gnodes (invert_template tpl)) -> a_el (iH a) = a_el (iG a).
  Proof.
    rewrite invert_gnodes. intros I. apply in_map_iff in I. destruct I as ([k0 a0] & E & I). inversion E; subst.
    cbn [inv_node iG iH inv_tuple a_el snd]. symmetry. exact (Hel _ _ I).
  Qed.
End Inv.

(** bonds of the inverted template, side by side: a bond on one side is an edge of that side of the decomposition *)
Lemma bonded_dec sn se (T : its) k h : simple_edgesb (gedges T) = true ->
  bonded se T k h = match adj (dec_side sn se T) k h with Some _ => true | None => false end.
Proof.
  intros Hs. rewrite (dec_adj sn se T k h (simpleP_of_b _ Hs)). unfold bonded.
  destruct (adj T k h) as [x|]; [destruct (0 <? se x)|]; reflexivity.
Qed.

Lemma bonded_invert_G tpl k h : simple_edgesb (gedges tpl) = true ->
  bonded eG (invert_template tpl) k h = bonded eH tpl k h.
Proof.
  intros Hs. rewrite (bonded_dec iG eG _ k h (invert_simple tpl Hs)), (bonded_dec iH eH tpl k h Hs).
  change (dec_side iG eG (invert_template tpl)) with (fst (its_decompose (invert_template tpl))). rewrite invert_decompose. reflexivity.
Qed.
Lemma bonded_invert_H tpl k h : simple_edgesb (gedges tpl) = true ->
  bonded eH (invert_template tpl) k h = bonded eG tpl k h.
Proof.
  intros Hs. rewrite (bonded_dec iH eH _ k h (invert_simple tpl Hs)), (bonded_dec iG eG tpl k h Hs).
  change (dec_side iH eH (invert_template tpl)) with (snd (its_decompose (invert_template tpl))). rewrite invert_decompose. reflexivity.
Qed.

Lemma sumL_dQ_invert (R : list N) tpl :
  sumL dQ (filter (keepn R) (gnodes (invert_template tpl))) = - sumL dQ (filter (keepn R) (gnodes tpl)).
Proof.
  rewrite invert_gnodes. induction (gnodes tpl) as [|[k a] r IH]; [reflexivity|]. cbn [map filter fst snd].
  change (keepn R (k, inv_node a)) with (negb (mem k R)). change (keepn R (k, a)) with (negb (mem k R)).
  destruct (negb (mem k R)); [|exact IH]. unfold sumL in *. cbn [fold_right snd]. rewrite IH. unfold dQ. cbn [inv_node iG iH inv_tuple a_ch]. lia.
Qed.

Lemma countZ_ext {A} (P Q : A -> bool) l : (forall x, P x = Q x) -> countZ P l = countZ Q l.
Proof. intros H. unfold countZ. f_equal. f_equal. induction l as [|x r IH]; simpl; [reflexivity|]. rewrite H, IH. reflexivity. Qed.

(** the template condition is symmetric in the two sides *)
Theorem tpl_condition_invert tpl :
  (forall k a, In (k, a) (gnodes tpl) -> a_el (iH a) = a_el (iG a)) -> simple_edgesb (gedges tpl) = true ->
  tpl_condition tpl -> tpl_condition (invert_template tpl).
Proof.
  intros Hel Hs Hc R K NR NK HR HK.
  assert (HR' : forall h, In h R <-> is_H_i tpl h = true /\ heavy_nbr (side0 iG eG tpl) h = true /\ heavy_nbr (side0 iH eH tpl) h = true).
  { intros h. rewrite (HR h), (isH_invert tpl Hel h), side0_invert_G, side0_invert_H. tauto. }
  assert (HK' : forall k, In k K <-> In k (node_ids tpl) /\ is_H_i tpl k = false).
  { intros k. rewrite (HK k), invert_ids, (isH_invert tpl Hel k). tauto. }
  destruct (Hc R K NR NK HR' HK') as [E Q]. split.
  - intros h Ih. rewrite (countZ_ext _ (fun k => bonded eG tpl k h)) by (intros k; apply bonded_invert_H; exact Hs).
    rewrite (countZ_ext (fun k => bonded eG (invert_template tpl) k h) (fun k => bonded eH tpl k h)) by (intros k; apply bonded_invert_G; exact Hs).
    symmetry. exact (E h Ih).
  - rewrite sumL_dQ_invert, Q. reflexivity.
Qed.

(** * the default mode BACKWARDS end to end, hypotheses on the template as written *)
Theorem its_list_default_end_to_end_backward inp tpl rc l r gs :
  i_rule inp = synrule (invert_template tpl) true -> synrule (invert_template tpl) true = Some (rc, l, r) ->
  (forall k a, In (k, a) (gnodes tpl) -> a_el (iH a) = a_el (iG a)) ->
  wf_rcb tpl = true -> edges_closedb tpl = true -> tpl_condition tpl ->
  wf_hostb (i_host inp) = true -> forallb (call_okm (i_host inp) l) (i_calls inp) = true ->
  spec_its inp = Some gs ->
  forall g, In g gs ->
    instance_of (i_host inp) rc g /\
    (forall e, elem_count e (fst (its_decompose g)) = elem_count e (snd (its_decompose g))) /\
    total_charge (fst (its_decompose g)) = total_charge (snd (its_decompose g)).
Proof.
  intros Ei Es Hel Hw Hc Hcond Hwh Hcalls Hits g Ig.
  pose proof (wf_rc_simple tpl Hw) as Hs.
  exact (its_list_default_end_to_end inp (invert_template tpl) rc l r gs Ei Es (Hel_invert tpl Hel) (invert_wf tpl Hw)
           (invert_edges_closedb tpl Hc) (tpl_condition_invert tpl Hel Hs Hcond) Hwh Hcalls Hits g Ig).
Qed.

(** * a SynRule OBJECT applied backwards (SynReactor._wrap_template): the reactor inverts the PREPARED
    rule graph rc0 and uses it without preparing it again — the implicit-template theorem applied to rc0.  Here for a rule
    object prepared in the default mode from a template: hypotheses on the template, the substrate, the matcher's contract. *)
Theorem its_list_synrule_object_backward (implicit_temp : bool) inp tpl rc0 l0 r0 gs :
  synrule tpl true = Some (rc0, l0, r0) ->
  i_rule inp = wrap_template_rule true implicit_temp (rc0, l0, r0) ->
  (forall k a, In (k, a) (gnodes tpl) -> a_el (iH a) = a_el (iG a)) ->
  wf_rcb tpl = true -> edges_closedb tpl = true ->
  wf_hostb (i_host inp) = true ->
  forallb (call_okm (i_host inp) (fst (its_decompose (invert_template rc0)))) (i_calls inp) = true ->
  spec_its inp = Some gs ->
  forall g, In g gs ->
    instance_of (i_host inp) (invert_template rc0) g /\
    (tpl_condition tpl ->
       (forall e, elem_count e (fst (its_decompose g)) = elem_count e (snd (its_decompose g))) /\
       total_charge (fst (its_decompose g)) = total_charge (snd (its_decompose g))).
Proof.
  intros Es Ei Hel Hw Hc Hwh Hcalls Hits g Ig.
  destruct (default_rule_hyps tpl rc0 l0 r0 Hel Hw Hc Es) as (R1 & R2 & _).
  unfold wrap_template_rule in Ei. cbn [fst] in Ei.
  destruct (its_list_implicit_end_to_end true inp rc0 gs Ei R1 R2 Hwh Hcalls Hits g Ig) as [A B]. split; [exact A|].
  intros Hcond. apply B.
  pose proof (conj (wf_rc_nodupb tpl Hw) (wf_rc_simple tpl Hw)) as Hnd.
  exact (default_rule_balanced tpl rc0 l0 r0 (proj1 Hnd) Hel (proj2 Hnd) Es Hcond).
Qed.

(** * the template-side hypotheses as one boolean ([default_tpl_okb], proof/C03_ReactorSpec.v) *)
Theorem tpl_condb_sound tpl : NoDup (node_ids tpl) -> tpl_condb tpl = true -> tpl_condition tpl.
Proof.
  intros Hnd Hb R K NR NK HR HK. unfold tpl_condb in Hb. apply andb_prop in Hb. destruct Hb as [B1 B2].
  rewrite forallb_forall in B1. apply Z.eqb_eq in B2.
  assert (ER : forall h, In h R <-> In h (removedR tpl)).
  { intros h. rewrite HR. unfold removedR. rewrite filter_In. split.
    - intros (A & B & C). split; [|rewrite A, B, C; reflexivity].
      apply has_node_in. unfold is_H_i in A. unfold has_node. destruct (label tpl h); [reflexivity|discriminate].
    - intros (_ & H). apply andb_prop in H. destruct H as [H C]. apply andb_prop in H. tauto. }
  assert (PK : Permutation K (keptK tpl)).
  { apply NoDup_Permutation; [exact NK|apply NoDup_filter; exact Hnd|].
    intros k. rewrite HK. unfold keptK. rewrite filter_In. split; intros [A B]; (split; [exact A|]).
    - rewrite B. reflexivity.
    - apply negb_true_iff in B. exact B. }
  split.
  - intros h Ih. apply ER in Ih. specialize (B1 h Ih). apply Z.eqb_eq in B1.
    rewrite (countZ_perm _ _ _ PK), (countZ_perm (fun k => bonded eG tpl k h) _ _ PK). exact B1.
  - rewrite (filter_keepn_ext R (removedR tpl) _ ER). exact B2.
Qed.

Theorem default_tpl_okb_sound tpl : default_tpl_okb tpl = true ->
  (forall k a, In (k, a) (gnodes tpl) -> a_el (iH a) = a_el (iG a)) /\ wf_rcb tpl = true /\ edges_closedb tpl = true /\ tpl_condition tpl.
Proof.
  unfold default_tpl_okb. intros H. apply andb_prop in H. destruct H as [H H4]. apply andb_prop in H. destruct H as [H H3].
  apply andb_prop in H. destruct H as [H1 H2]. split; [|split; [exact H1|split; [exact H2|]]].
  - intros k a I. unfold same_elb in H3. rewrite forallb_forall in H3. specialize (H3 _ I). apply N.eqb_eq in H3. exact H3.
  - apply tpl_condb_sound; [exact (wf_rc_nodup tpl H1)|exact H4].
Qed.

Lemma default_tpl_hyps (invert : bool) tpl : default_tpl_okb tpl = true ->
  let tpl' := if invert then invert_template tpl else tpl in
  (forall k a, In (k, a) (gnodes tpl') -> a_el (iH a) = a_el (iG a)) /\ wf_rcb tpl' = true /\ edges_closedb tpl' = true /\
  tpl_condition tpl'.
Proof.
  intros Hb. destruct (default_tpl_okb_sound tpl Hb) as (Hel & Hw & Hc & Hcond). destruct invert; [|auto].
  split; [exact (Hel_invert tpl Hel)|]. split; [exact (invert_wf tpl Hw)|]. split; [exact (invert_edges_closedb tpl Hc)|].
  exact (tpl_condition_invert tpl Hel (wf_rc_simple tpl Hw) Hcond).
Qed.

(** the default mode end to end, forwards and backwards, the template-side hypotheses as the evaluated boolean *)
Theorem its_list_default_bool (invert : bool) inp tpl rc l r gs :
  default_tpl_okb tpl = true ->
  i_rule inp = synrule (if invert then invert_template tpl else tpl) true ->
  synrule (if invert then invert_template tpl else tpl) true = Some (rc, l, r) ->
  wf_hostb (i_host inp) = true -> forallb (call_okm (i_host inp) l) (i_calls inp) = true ->
  spec_its inp = Some gs ->
  forall g, In g gs ->
    instance_of (i_host inp) rc g /\
    (forall e, elem_count e (fst (its_decompose g)) = elem_count e (snd (its_decompose g))) /\
    total_charge (fst (its_decompose g)) = total_charge (snd (its_decompose g)).
Proof.
  intros Hb Ei Es Hwh Hcalls Hits g Ig. destruct (default_tpl_hyps invert tpl Hb) as (Hel & Hw & Hc & Hcond).
  exact (its_list_default_end_to_end inp _ rc l r gs Ei Es Hel Hw Hc Hcond Hwh Hcalls Hits g Ig).
Qed.

