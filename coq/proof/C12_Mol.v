(** C12 -- find_common_subgraph(mcs_mol=True) (model [find_mcs_mol_pairs]): the greedy matching pairs components of G1
    with pairwise different components of G2 of the same size that pass the isomorphism test, and for EVERY choice of
    valid mappings inside the matched pairs the combined mapping is a common induced mapping of the two (pruned) graphs.
    With VF2's choice of the isomorphisms as a validated input ([find_mcs_mol_with], [find_mcs_mol_with_mtg]; [ci_check]
    decides [common_induced]) an accepted parameter therefore yields one valid combined mapping, in both matcher copies. *)
From Coq Require Import List NArith ZArith Bool Arith Permutation.
From SK Require Import lib.LGraph lib.Mono lib.C12_MonoPw model.C12_Model model.C12_Check model.C12_CheckMtg
                       proof.C12_Search proof.C12_Proof proof.C12_Prune proof.C12_Component.
Import ListNotations.

Lemma pdisj_in L : pdisj L -> forall a b, In a L -> In b L -> a = b \/ forall x, In x a -> ~ In x b.
Proof.
  induction 1 as [|c L Hc HL IH]; intros a b Ia Ib; [destruct Ia|].
  destruct Ia as [<-|Ia], Ib as [<-|Ib].
  - now left.
  - right. intros x Hx. now apply (Hc b Ib).
  - right. intros x Hx Hxc. now apply (Hc a Ia x Hxc).
  - now apply IH.
Qed.

Lemma set_used_refl c used : In c used -> set_used c used = true.
Proof.
  intros I. unfold set_used. apply existsb_exists. exists c. split; [exact I|].
  assert (H : forallb (fun x => LGraph.mem x c) c = true) by (apply forallb_forall; intros x Hx; now apply LGraph.mem_spec).
  now rewrite H.
Qed.

Section Mol.
Variable nm : option nattr -> option nattr -> bool.
Variable em : eattr -> eattr -> bool.
Variables g1 g2 : graph.

Lemma mol_find_spec c1 cands used : forall c2 n, mol_find nm em g1 g2 c1 cands used = (Some c2, n) ->
  In c2 cands /\ length c2 = length c1 /\ set_used c2 used = false /\ comp_iso nm em g1 g2 c1 c2 = true.
Proof.
  induction cands as [|d r IH]; intros c2 n E; simpl in E; [discriminate|].
  destruct (negb (length d =? length c1) || set_used d used) eqn:Eg.
  - destruct (IH _ _ E) as (A & B). split; [now right|exact B].
  - apply orb_false_iff in Eg. destruct Eg as [El Eu]. apply negb_false_iff, Nat.eqb_eq in El.
    destruct (comp_iso nm em g1 g2 c1 d) eqn:Ei.
    + inversion E; subst. split; [now left|auto].
    + destruct (mol_find nm em g1 g2 c1 r used) as [res k] eqn:Er. inversion E; subst.
      destruct (IH _ _ eq_refl) as (A & B). split; [now right|exact B].
Qed.

Lemma mol_pairs_spec l2 : pdisj l2 -> forall l1 used ps n, pdisj l1 ->
  mol_pairs nm em g1 g2 l1 l2 used = (ps, n) ->
  (forall c1 c2, In (c1, c2) ps -> In c1 l1 /\ In c2 l2 /\ length c2 = length c1 /\
                                   comp_iso nm em g1 g2 c1 c2 = true /\ set_used c2 used = false) /\
  pdisj (map fst ps) /\ pdisj (map snd ps).
Proof.
  intros P2. induction l1 as [|c1 r IH]; intros used ps n P1 E; simpl in E.
  - injection E as <- _. split; [intros ? ? []|split; constructor].
  - inversion P1 as [|? ? D1 P1']; subst.
    destruct (mol_find nm em g1 g2 c1 l2 used) as [[c2|] k] eqn:Ef.
    + destruct (mol_pairs nm em g1 g2 r l2 (c2 :: used)) as [ps' n'] eqn:Ep. injection E as <- _.
      destruct (mol_find_spec _ _ _ _ _ Ef) as (I2 & Hl & Hu & Hi).
      destruct (IH _ _ _ P1' Ep) as (S1 & S2 & S3).
      assert (Hsub : forall u d, set_used d (u :: used) = false -> set_used d used = false).
      { intros u d H. exact (proj2 (orb_false_elim _ _ H)). }
      split; [|split].
      * intros a b [Eab|Iab].
        -- injection Eab as <- <-. split; [now left|]. split; [exact I2|]. split; [exact Hl|]. split; [exact Hi|exact Hu].
        -- destruct (S1 a b Iab) as (A & B & C & D & F). split; [now right|]. split; [exact B|]. split; [exact C|].
           split; [exact D|eapply Hsub; exact F].
      * simpl. constructor; [|exact S2]. intros d Hd. apply in_map_iff in Hd. destruct Hd as ([a b] & <- & Iab). simpl.
        apply D1. now apply (S1 a b Iab).
      * simpl. constructor; [|exact S3]. intros d Hd. apply in_map_iff in Hd. destruct Hd as ([a b] & <- & Iab). simpl.
        destruct (S1 a b Iab) as (_ & Ib & _ & _ & Fu).
        destruct (pdisj_in l2 P2 c2 b I2 Ib) as [->|Hd]; [|exact Hd].
        exfalso. rewrite set_used_refl in Fu; [discriminate|now left].
    + destruct (mol_pairs nm em g1 g2 r l2 used) as [ps' n'] eqn:Ep. injection E as <- _.
      destruct (IH _ _ _ P1' Ep) as (S1 & S2 & S3). split; [|exact (conj S2 S3)].
      intros a b Iab. destruct (S1 a b Iab) as (A & B). split; [now right|exact B].
Qed.

Theorem mol_pairs_valid ps n : wfe g1 -> wfe g2 ->
  mol_pairs nm em g1 g2 (sort_comps (components g1)) (sort_comps (components g2)) [] = (ps, n) ->
  (forall c1 c2, In (c1, c2) ps ->
     In c1 (components g1) /\ In c2 (components g2) /\ length c2 = length c1 /\ comp_iso nm em g1 g2 c1 c2 = true) /\
  pdisj (map fst ps) /\ pdisj (map snd ps) /\
  (forall ms, Forall2 (fun p m => common_induced nm em (induced_sub g1 (fst p)) (induced_sub g2 (snd p)) m) ps ms ->
              common_induced nm em g1 g2 (concat ms)).
Proof.
  intros W1 W2 E.
  destruct (sorted_components g1 W1) as (P1 & C1). destruct (sorted_components g2 W2) as (P2 & C2).
  destruct (mol_pairs_spec _ P2 _ _ _ _ P1 E) as (S1 & S2 & S3).
  split; [|split; [exact S2|split; [exact S3|]]].
  - intros c1 c2 I. destruct (S1 c1 c2 I) as (A & B & Hl & Hi & _).
    split; [now apply C1|]. split; [now apply C2|]. split; [exact Hl|exact Hi].
  - intros ms F. rewrite <- (app_nil_l (concat ms)).
    apply (combine_valid nm em g1 g2 ps ms []); [exact F|exact S2|exact S3| |apply ci_nil|intros p h []].
    intros [c1 c2] I. destruct (S1 c1 c2 I) as (A & B & _). split; [now apply C1|now apply C2].
Qed.

End Mol.

Theorem mcs_mol_valid defs prune wc (g1 g2 : graph) :
  NoDup (node_ids g1) -> NoDup (node_ids g2) -> wfe g1 -> wfe g2 ->
  let g1u := prune_graph prune wc g1 in
  let g2u := prune_graph prune wc g2 in
  let ps := fst (find_mcs_mol_pairs defs prune wc g1 g2) in
  (forall c1 c2, In (c1, c2) ps ->
     In c1 (components g1u) /\ In c2 (components g2u) /\ length c2 = length c1 /\
     comp_iso (node_match defs) edge_match g1u g2u c1 c2 = true) /\
  (forall i j, i < j -> j < length ps -> forall x,
     (In x (nth i (map fst ps) []) -> ~ In x (nth j (map fst ps) [])) /\
     (In x (nth i (map snd ps) []) -> ~ In x (nth j (map snd ps) []))) /\
  (forall ms, Forall2 (fun p m => common_induced (node_match defs) edge_match
                                    (induced_sub g1u (fst p)) (induced_sub g2u (snd p)) m) ps ms ->
              common_induced (node_match defs) edge_match g1u g2u (concat ms)).
Proof.
  intros _ _ W1 W2 g1u g2u ps. unfold ps, find_mcs_mol_pairs. fold g1u g2u.
  destruct (mol_pairs (node_match defs) edge_match g1u g2u (sort_comps (components g1u)) (sort_comps (components g2u)) [])
    as [pairs n] eqn:E.
  destruct (mol_pairs_valid _ _ g1u g2u pairs n (wfe_prune prune wc g1 W1) (wfe_prune prune wc g2 W2) E) as (S1 & S2 & S3 & V).
  split; [exact S1|]. split; [|exact V].
  intros i j Hij Hj x. split.
  - apply (pdisj_nth _ S2 i j Hij). now rewrite map_length.
  - apply (pdisj_nth _ S3 i j Hij). now rewrite map_length.
Qed.

(* ------------------------------------------------------------------ what the isomorphism test of a pair says *)
(** [comp_iso] (the model of GraphMatcher(sub1, sub2).is_isomorphic() for components of equal size) holds iff some
    common induced mapping of the two induced copies covers all of c1 -- so the premise of [mcs_mol_valid] about the
    mappings inside the pairs is satisfiable exactly for the pairs the matching selects. *)
Theorem comp_iso_spec nm em (g1 g2 : graph) (c1 c2 : list N) :
  NoDup c1 -> incl c1 (node_ids g1) -> incl c2 (node_ids g2) ->
  (comp_iso nm em g1 g2 c1 c2 = true <->
   exists m, common_induced nm em (induced_sub g1 c1) (induced_sub g2 c2) m /\ Permutation (map fst m) c1).
Proof.
  intros N1 I1 I2. unfold comp_iso.
  set (ms := monos c1 c2 (label g1) (label g2) (LGraph.adj g1) (LGraph.adj g2) nm em true).
  (* on mappings whose first components are those of c1, validity for the induced copies is the order-free reading of
     the enumerator's own specification with the host nodes c2 *)
  assert (R : forall m, Permutation (map fst m) c1 ->
                (common_induced nm em (induced_sub g1 c1) (induced_sub g2 c2) m <->
                 pw c2 (label g1) (label g2) (LGraph.adj g1) (LGraph.adj g2) nm em true m)).
  { intros m Pm.
    assert (F1 : forall p h, In (p, h) m -> In p c1).
    { intros p h I. apply (Permutation_in _ Pm). change p with (fst (p, h)). now apply in_map. }
    rewrite ci_induced_iff, ci_iff_pw. split.
    - intros ((_ & _ & Hpw) & K). revert Hpw. apply pw_hosts. intros p h I _. now apply (K p h).
    - intros Hpw. split; [split; [|split]|].
      + eapply Permutation_NoDup; [apply Permutation_sym; exact Pm|exact N1].
      + intros p Hp. apply I1. now apply (Permutation_in _ Pm).
      + revert Hpw. apply pw_hosts. intros p h _. apply I2.
      + intros p h I. split; [now apply (F1 p h)|]. now apply (proj1 Hpw p h). }
  split.
  - intros H. destruct ms as [|m0 r] eqn:Em; [discriminate|].
    assert (I0 : In m0 ms) by (rewrite Em; now left).
    destruct (monos_pw _ _ _ _ _ _ _ _ (adj_sym g1) (adj_sym g2) c1 m0 I0) as (Hfst & Hpw).
    assert (Pm : Permutation (map fst m0) c1) by (rewrite Hfst; apply Permutation_sym, Permutation_rev).
    exists m0. split; [now apply R|exact Pm].
  - intros (m & C & Pm). apply (R m Pm) in C. destruct (pw_monos _ _ _ _ _ _ _ _ c1 m Pm C) as (m' & I & _).
    fold ms in I. destruct ms; [destruct I|reflexivity].
Qed.

Theorem ci_check_spec nm em (ga gb : graph) (m : mapping) :
  ci_check nm em ga gb m = true <-> common_induced nm em ga gb m.
Proof.
  unfold ci_check, common_induced. split.
  - intros H. apply andb_prop in H. destruct H as (H & D). apply andb_prop in H. destruct H as (H & C).
    apply andb_prop in H. destruct H as (A & B). apply nodupb_spec in A, B. rewrite forallb_forall in C, D.
    split; [exact A|split; [exact B|split]].
    + intros p h I. specialize (C (p, h) I). apply andb_prop in C. destruct C as (C & C3).
      apply andb_prop in C. destruct C as (C1 & C2).
      split; [now apply LGraph.mem_spec|split; [now apply LGraph.mem_spec|exact C3]].
    + intros p h p' h' I I' Hne. specialize (D (p, h) I). rewrite forallb_forall in D. specialize (D (p', h') I').
      apply orb_prop in D. destruct D as [D|D]; [apply N.eqb_eq in D; contradiction|].
      exact (proj1 (edge_ok_induced (LGraph.adj ga) (LGraph.adj gb) em p h p' h') D).
  - intros (A & B & C & D).
    apply andb_true_intro; split; [apply andb_true_intro; split; [apply andb_true_intro; split|]|].
    + now apply nodupb_spec.
    + now apply nodupb_spec.
    + apply forallb_forall. intros [p h] I. destruct (C p h I) as (C1 & C2 & C3).
      apply andb_true_intro; split; [apply andb_true_intro; split; now apply LGraph.mem_spec|exact C3].
    + apply forallb_forall. intros [p h] I. apply forallb_forall. intros [p' h'] I'. cbn [fst].
      destruct (N.eqb_spec p p') as [->|Hne]; [reflexivity|].
      exact (proj2 (edge_ok_induced (LGraph.adj ga) (LGraph.adj gb) em p h p' h') (D p h p' h' I I' Hne)).
Qed.

Lemma apply_mol_choice_spec nm em (g1u g2u : graph) ps choice m :
  apply_mol_choice nm em g1u g2u ps choice = Some m ->
  exists ms, m = concat ms /\
    Forall2 (fun p mp => common_induced nm em (induced_sub g1u (fst p)) (induced_sub g2u (snd p)) mp) ps ms /\
    (forall ph, In ph m -> In ph choice) /\ length m = length choice.
Proof.
  unfold apply_mol_choice. set (ms := map (fun pr => part_of choice (fst pr)) ps).
  destruct (forallb _ (combine ps ms)) eqn:Ef; [|discriminate].
  destruct (length (concat ms) =? length choice) eqn:El; [|discriminate]. intros [= <-].
  exists ms. split; [reflexivity|]. split; [|split; [|now apply Nat.eqb_eq]].
  - unfold ms. clear El. induction ps as [|pr r IH]; simpl in *; [constructor|].
    apply andb_prop in Ef. destruct Ef as (E1 & E2). constructor; [|now apply IH].
    apply andb_prop in E1. exact (proj1 (ci_check_spec _ _ _ _ _) (proj1 E1)).
  - intros ph Hph. apply in_concat in Hph. destruct Hph as (l & Hl & Hph). apply in_map_iff in Hl.
    destruct Hl as (pr & <- & _). apply filter_In in Hph. tauto.
Qed.

(** an accepted choice of the isomorphisms inside the matched pairs gives a common induced mapping of the (pruned) graphs *)
Theorem mol_choice_valid defs prune wc (g1 g2 : graph) choice r :
  NoDup (node_ids g1) -> NoDup (node_ids g2) -> wfe g1 -> wfe g2 ->
  find_mcs_mol_with defs prune wc g1 g2 choice = Some r ->
  exists m, r_maps r = [m] /\ r_last r = length m /\ r_pattern_is_g1 r = true /\
            r_tried r = snd (find_mcs_mol_pairs defs prune wc g1 g2) /\
            (forall ph, In ph m -> In ph choice) /\ length m = length choice /\
            common_induced (node_match defs) edge_match (prune_graph prune wc g1) (prune_graph prune wc g2) m /\
            common_induced (node_match defs) edge_match (prune_graph prune wc g2) (prune_graph prune wc g1) (invert_mapping m).
Proof.
  intros N1 N2 W1 W2 E. unfold find_mcs_mol_with in E.
  destruct (mcs_mol_valid defs prune wc g1 g2 N1 N2 W1 W2) as (_ & _ & V).
  destruct (find_mcs_mol_pairs defs prune wc g1 g2) as [ps n]. simpl in V.
  destruct (apply_mol_choice _ _ _ _ ps choice) as [m|] eqn:Ea; [|discriminate]. injection E as <-.
  destruct (apply_mol_choice_spec _ _ _ _ _ _ _ Ea) as (ms & -> & F & Hsub & Hlen).
  exists (concat ms). simpl. pose proof (V ms F) as C.
  split; [reflexivity|]. split; [reflexivity|]. split; [reflexivity|]. split; [reflexivity|].
  split; [exact Hsub|]. split; [exact Hlen|]. split; [exact C|].
  apply (ci_invert _ _ (node_match_sym defs) edge_match_sym). exact C.
Qed.

(** the MTG copy's mcs_mol mode: one combined mapping, valid for the MTG matchers also across components *)
Theorem mol_choice_valid_mtg defs (g1 g2 : graph) choice maps last n :
  NoDup (node_ids g1) -> NoDup (node_ids g2) -> wfe g1 -> wfe g2 ->
  find_mcs_mol_with_mtg defs g1 g2 choice = Some (maps, last, n) ->
  exists m, maps = [m] /\ last = length m /\ n = snd (find_mcs_mol_pairs_mtg defs g1 g2) /\
            (forall ph, In ph m -> In ph choice) /\ length m = length choice /\
            common_induced (node_match defs) edge_match_mtg g1 g2 m.
Proof.
  intros _ _ W1 W2 E. unfold find_mcs_mol_with_mtg, find_mcs_mol_pairs_mtg in *.
  destruct (mol_pairs (node_match defs) edge_match_mtg g1 g2 (sort_comps (components g1)) (sort_comps (components g2)) [])
    as [ps k] eqn:Ep.
  destruct (mol_pairs_valid _ _ g1 g2 ps k W1 W2 Ep) as (_ & _ & _ & V).
  destruct (apply_mol_choice _ _ _ _ ps choice) as [m|] eqn:Ea; [|discriminate]. injection E as <- <- <-.
  destruct (apply_mol_choice_spec _ _ _ _ _ _ _ Ea) as (ms & -> & F & Hsub & Hlen).
  exists (concat ms). split; [reflexivity|]. split; [reflexivity|]. split; [reflexivity|].
  split; [exact Hsub|]. split; [exact Hlen|exact (V ms F)].
Qed.

Module Example_mol.
Import Example_component.
Open Scope N_scope.
(** h1: C1-O2 . C4=C5 . N3     h2: C7=C8 . O9-C10 . C11-C12 : C1-O2 <-> O9-C10, C4=C5 <-> C7=C8, N3 unmatched *)
Definition h1 : graph := g1.
Definition h2 : graph := LG [nd 7 1; nd 8 1; nd 9 2; nd 10 1; nd 11 1; nd 12 1]
                            [((7,8), [Some 4%Z]); ((9,10), [Some 2%Z]); ((11,12), [Some 2%Z])].
Lemma h2_nodup : NoDup (node_ids h2). Proof. now apply nodupb_spec. Qed.
Lemma h2_wfe : wfe h2. Proof. now apply wfeb_sound. Qed.

Example mcs_mol_nonvacuous :
  find_mcs_mol_pairs [9] false 9 h1 h2 = ([([2; 1], [10; 9]); ([5; 4], [8; 7])], 3%nat) /\
  common_induced (node_match [9]) edge_match h1 h2 ([(1, 10); (2, 9)] ++ [(4, 7); (5, 8)] ++ []).
Proof.
  split; [vm_compute; reflexivity|].
  destruct (mcs_mol_valid [9] false 9 h1 h2 g1_nodup h2_nodup g1_wfe h2_wfe) as (_ & _ & V).
  apply (V [[(1, 10); (2, 9)]; [(4, 7); (5, 8)]]).
  assert (E : fst (find_mcs_mol_pairs [9] false 9 h1 h2) = [([2; 1], [10; 9]); ([5; 4], [8; 7])]) by (vm_compute; reflexivity).
  rewrite E. constructor; [|constructor; [|constructor]]; apply (proj1 (ci_check_spec _ _ _ _ _)); vm_compute; reflexivity.
Qed.
End Example_mol.
