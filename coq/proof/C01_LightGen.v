(** C01 — the classmethod MolToGraph.mol_to_graph: all three builders agree *)
From Coq Require Import List NArith ZArith Bool.
From SK Require Import lib.LGraph lib.C01_GraphLemmas model.C01_Model model.C01_String model.C01_Builders model.C01_M2GIdx
  proof.C01_StringProof proof.C01_BuildersProof proof.C01_LightProof.
Import ListNotations.

Lemma builders_agree (m : rmol) (drop use : bool) :
  NoDup (map fst (gen_nodes drop use m)) -> simple (gen_bonds drop use m) -> drop && negb use = false ->
  exists g g', mol_to_graph drop use m = Some g /\ detailed_graph drop use m = Some g /\ light_graph drop use m = Some g' /\
    g = LG (gen_nodes drop use m) (gen_bonds drop use m) /\
    (forall n, label g' n = option_map Some (label g n)) /\ (forall u v, adj g' u v = adj g u v).
Proof.
  intros Hn Hs Ef. destruct (light_is_transform_general m drop use Hn Hs Ef) as (g & g' & E1 & E2 & L & A).
  exists g, g'. split; [exact E1|]. split; [rewrite C01_BuildersProof.detailed_is_transform; exact E1|]. split; [exact E2|].
  split; [|split; [exact L|exact A]]. rewrite (mol_to_graph_general drop use m Ef Hn Hs) in E1. inversion E1. reflexivity.
Qed.
