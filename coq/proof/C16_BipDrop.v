(** C16 — the bipartite round trip after the caller deleted attributes from the exported graph: `kind` is re-derived from
    the node-id prefixes, `label` from the node id / the default rule, without `mol` the labels are simply absent, the
    networkx marker is never read, without `stoich` the supports come back ([bipartite_roundtrip_edited]: any deletion,
    under the premises [edit_ok]).  Model of the deletions: model/C16_Edit.v. *)
From stdpp Require Import gmap strings sets pretty sorting.
From SK Require Import lib.Tok model.C15_Model proof.C15_Proof model.C16_Model proof.C16_Defs proof.C16_Common
                       proof.C16_BipA proof.C16_BipB model.C16_Edit proof.C16_BipArcs.
Local Open Scope string_scope.
Local Open Scope list_scope.

Lemma prefix_app (p s : string) : String.prefix p (p +:+ s) = true.
Proof.
  induction p as [|a p IH]; simpl; [by destruct s|].
  destruct (Ascii.ascii_dec a a) as [_|Hne]; [exact IH|by destruct Hne].
Qed.

Lemma foldl_id_step {A B} (f : A → B → A) (s : A) (l : list B) : (∀ acc x, x ∈ l → f acc x = acc) → foldl f s l = s.
Proof.
  revert s. induction l as [|x l IH]; intros s Hf; [done|]. cbn. rewrite (Hf s x) by (by left).
  apply IH. intros acc y Hy. apply Hf. by right.
Qed.

Definition with_mol (ifl : iflags) (b : bool) : iflags := IFlags (i_sp ifl) (i_rp ifl) (i_default_rule ifl) b.

(** * importing the graph after the deletions = importing the graph as exported *)
Section drop.
  Context (fl : bflags) (ifl : iflags) (d : drops) (H : net) (G : bgraph) (Ms Rs : gmap string nid).
  Context (HS : bip_spec fl H G Ms Rs) (Hwf : wf_rxns H) (Heid : f_eid fl = true).
  (** arcs keep their attributes that are read (`stoich`); `role` is kept too (it is never read, but dropping it changes
      every arc record) *)
  Context (Hst : d_stoich d = false) (Hro : d_role d = false).
  (** species nodes without `kind` / `label`: string ids, recognised by the importer's species prefix; the label is the
      node id itself only when the exporter used no species prefix *)
  Context (HMs : d_kind_sp d = true ∨ d_label_sp d = true → ∀ s n, Ms !! s = Some n → n = inr (default "" (f_sp fl) +:+ s)).
  Context (Hksp : d_kind_sp d = true → i_sp ifl = default "" (f_sp fl)).
  Context (Hlsp : d_label_sp d = true → default "" (f_sp fl) = "").
  (** reaction nodes without `kind`: string ids that the importer's reaction prefix matches and its species prefix does not *)
  Context (HRs : d_kind_rx d = true → ∀ e n, Rs !! e = Some n → n = inr (default "" (f_rp fl) +:+ e)).
  Context (Hkrx : d_kind_rx d = true → i_rp ifl = default "" (f_rp fl) ∧
                    ∀ e, is_Some (edges H !! e) → String.prefix (i_sp ifl) (default "" (f_rp fl) +:+ e) = false).
  (** reaction nodes without `label`: every rule is the importer's default rule *)
  Context (Hlrx : d_label_rx d = true → ∀ e rx, edges H !! e = Some rx → r_rule rx = i_default_rule ifl).

  Lemma drop_arc_id a : drop_arc d a = a.
  Proof. destruct a. unfold drop_arc. cbn. by rewrite Hst, Hro. Qed.
  Lemma drop_arcs : b_arcs (drop_attrs d G) = b_arcs G.
  Proof.
    cbn [drop_attrs b_arcs]. rewrite (map_fmap_ext _ id); [apply map_fmap_id|]. intros ? a _. apply drop_arc_id.
  Qed.
  Lemma drop_lookup n : b_nodes (drop_attrs d G) !! n = drop_node d <$> b_nodes G !! n.
  Proof. cbn [drop_attrs b_nodes]. apply lookup_fmap. Qed.

  Lemma is_rx_sp s : is_rx_node (sp_attrs fl H s) = false.
  Proof. unfold is_rx_node, sp_attrs. cbn. by apply bool_decide_eq_false. Qed.
  Lemma is_rx_rx e rule : is_rx_node (rx_attrs fl e rule) = true.
  Proof. unfold is_rx_node, rx_attrs. cbn. by apply bool_decide_eq_true. Qed.

  Lemma node_cases n nd : b_nodes G !! n = Some nd →
    (∃ s, Ms !! s = Some n ∧ nd = sp_attrs fl H s) ∨
    (∃ e rx, edges H !! e = Some rx ∧ Rs !! e = Some n ∧ nd = rx_attrs fl e (r_rule rx)).
  Proof. apply (bs_nodes _ _ _ _ _ HS). Qed.

  (** ** classification *)
  Lemma sp_iff n nd : b_nodes G !! n = Some nd → sp_node ifl (n, drop_node d nd) ↔ sp_node ifl (n, nd).
  Proof.
    intros [(s & Hs & ->)|(e & rx & Hrx & He & ->)]%node_cases.
    - unfold drop_node. rewrite is_rx_sp. cbn. destruct (d_kind_sp d) eqn:Ek.
      + split; [by left|]. intros _. right. split; [done|].
        rewrite (HMs (or_introl eq_refl) s n Hs), (Hksp eq_refl). cbn. apply bool_decide_eq_true, prefix_app.
      + split; intros _; by left.
    - unfold drop_node. rewrite is_rx_rx. cbn. destruct (d_kind_rx d) eqn:Ek.
      + split.
        * intros [?|[_ Hp]]; [done|]. exfalso. destruct (Hkrx eq_refl) as [_ Hno].
          rewrite (HRs eq_refl e n He) in Hp. cbn in Hp. apply bool_decide_eq_true in Hp.
          rewrite Hno in Hp by eauto. done.
        * intros [?|[[_ ?] _]]; done.
      + split; (intros [?|[[_ ?] _]]; done).
  Qed.

  Lemma rx_iff n nd : b_nodes G !! n = Some nd → rx_node ifl (n, drop_node d nd) ↔ rx_node ifl (n, nd).
  Proof.
    intros [(s & Hs & ->)|(e & rx & Hrx & He & ->)]%node_cases.
    - unfold drop_node. rewrite is_rx_sp. cbn. destruct (d_kind_sp d) eqn:Ek.
      + split.
        * intros [?|[_ [Hp _]]]; [done|]. exfalso.
          rewrite (HMs (or_introl eq_refl) s n Hs), (Hksp eq_refl) in Hp. cbn in Hp. apply bool_decide_eq_false in Hp.
          apply Hp, prefix_app.
        * intros [?|[[? _] _]]; done.
      + split; (intros [?|[[? _] _]]; done).
    - unfold drop_node. rewrite is_rx_rx. cbn. destruct (d_kind_rx d) eqn:Ek.
      + split; [by left|]. intros _. right. split; [done|]. destruct (Hkrx eq_refl) as [Hq Hno].
        rewrite (HRs eq_refl e n He). cbn. split.
        * apply bool_decide_eq_false. rewrite Hno by eauto. done.
        * rewrite Hq. apply bool_decide_eq_true, prefix_app.
      + split; intros _; by left.
  Qed.

  Lemma classify_drop : classify ifl (drop_attrs d G) = classify ifl G.
  Proof. apply classify_fmap; [apply dom_fmap_L|exact sp_iff|exact rx_iff]. Qed.

  (** ** labels and coefficient maps *)
  Lemma node_label_drop_sp s n : Ms !! s = Some n → node_label (drop_attrs d G) n = node_label G n.
  Proof.
    intros Hs. rewrite (label_of_species fl H G Ms Rs HS s n Hs). unfold node_label.
    rewrite drop_lookup, (node_of_species fl H G Ms Rs HS s n Hs). cbn. unfold drop_node. rewrite is_rx_sp. cbn.
    destruct (d_label_sp d) eqn:El; [|done]. cbn.
    rewrite (HMs (or_intror eq_refl) s n Hs), (Hlsp eq_refl). done.
  Qed.

  Context (spN rxN : gset nid).
  Context (HspN : ∀ n, n ∈ spN ↔ ∃ s, Ms !! s = Some n) (HrxN : ∀ n, n ∈ rxN ↔ ∃ e, Rs !! e = Some n).

  Lemma side_map_drop rnd inc : side_map (drop_attrs d G) spN rnd inc = side_map G spN rnd inc.
  Proof.
    unfold side_map, side_contribs. rewrite drop_arcs. f_equal. apply omap_ext_in.
    intros [[u v] a] _. cbn. destruct (decide _) as [[_ Hin]|]; [|done].
    apply HspN in Hin as [s Hs]. by rewrite (node_label_drop_sp s _ Hs).
  Qed.

  Lemma import_rxn_drop b acc rnd : rnd ∈ rxN →
    import_rxn ifl (drop_attrs d G) spN acc rnd = import_rxn (with_mol ifl b) G spN acc rnd.
  Proof.
    intros [e He]%HrxN. unfold import_rxn. destruct acc as [s [er|]]; [done|]. cbv zeta.
    rewrite !side_map_drop, drop_lookup.
    destruct (proj1 (bs_Rdom _ _ _ _ _ HS e)) as [rx Hrx]; [eauto|].
    rewrite (node_of_rxn fl H G Ms Rs HS e rx rnd Hrx He). cbn [fmap option_fmap option_map default].
    destruct (decide _); [done|]. unfold drop_node. rewrite is_rx_rx. cbn.
    destruct (f_eid fl); [|done]. cbn. destruct (d_label_rx d) eqn:El; [|done]. cbn.
    by rewrite (Hlrx eq_refl e rx Hrx).
  Qed.

  Lemma import_mols_drop s : import_mols (drop_attrs d G) spN s = if d_mol d then s else import_mols G spN s.
  Proof.
    unfold import_mols. destruct (d_mol d) eqn:Em.
    - apply foldl_id_step. intros acc n [s0 Hs0]%elem_of_elements%HspN.
      rewrite drop_lookup, (node_of_species fl H G Ms Rs HS s0 n Hs0). cbn. unfold drop_node. by rewrite Em.
    - apply foldl_ext_in. intros acc n [s0 Hs0]%elem_of_elements%HspN.
      rewrite drop_lookup, (node_of_species fl H G Ms Rs HS s0 n Hs0), (node_label_drop_sp s0 n Hs0).
      cbn. unfold drop_node. rewrite Em. done.
  Qed.
End drop.

Lemma classify_with_mol ifl b G : classify (with_mol ifl b) G = classify ifl G.
Proof. done. Qed.

Lemma import_drop fl ifl d H G Ms Rs :
  bip_spec fl H G Ms Rs → wf_rxns H → f_eid fl = true →
  d_stoich d = false → d_role d = false →
  (d_kind_sp d = true ∨ d_label_sp d = true → f_int fl = false) →
  (d_kind_sp d = true → i_sp ifl = default "" (f_sp fl)) →
  (d_label_sp d = true → default "" (f_sp fl) = "") →
  (d_kind_rx d = true → f_int fl = false) →
  (d_kind_rx d = true → i_rp ifl = default "" (f_rp fl) ∧
     ∀ e, is_Some (edges H !! e) → String.prefix (i_sp ifl) (default "" (f_rp fl) +:+ e) = false) →
  (d_label_rx d = true → ∀ e rx, edges H !! e = Some rx → r_rule rx = i_default_rule ifl) →
  bipartite_to_hypergraph ifl (drop_attrs d G) = bipartite_to_hypergraph (with_mol ifl (i_mol ifl && negb (d_mol d))) G.
Proof.
  intros HS Hwf Heid Hst Hro HMi Hksp Hlsp HRi Hkrx Hlrx.
  pose proof (λ Hd, bs_Mstr _ _ _ _ _ HS (HMi Hd)) as HMs. pose proof (λ Hd, bs_Rstr _ _ _ _ _ HS (HRi Hd)) as HRs.
  unfold bipartite_to_hypergraph.
  rewrite (classify_drop fl ifl d H G Ms Rs HS HMs Hksp HRs Hkrx), classify_with_mol.
  destruct (classify_spec fl ifl H G Ms Rs HS) as (spN & rxN & -> & HspN & HrxN).
  rewrite (foldl_ext_in (import_rxn ifl (drop_attrs d G) spN)
                        (import_rxn (with_mol ifl (i_mol ifl && negb (d_mol d))) G spN)).
  2:{ intros acc n Hn. eapply (import_rxn_drop fl ifl d H G Ms Rs HS Heid Hst Hro HMs Hlsp Hlrx spN rxN HspN HrxN).
      by rewrite merge_sort_Permutation, elem_of_elements in Hn. }
  destruct (foldl _ _ _) as [s [e|]]; [done|]. cbn [i_mol with_mol].
  destruct (i_mol ifl); [|done]. cbn.
  rewrite (import_mols_drop fl d H G Ms Rs HS HMs Hlsp spN HspN). by destruct (d_mol d).
Qed.

(** * the round trip through an edited graph *)
Definition edit_ok (fl : bflags) (ifl : iflags) (d : drops) (H : net) : Prop :=
  (f_int fl = true → d_kind_sp d = false ∧ d_kind_rx d = false ∧ d_label_sp d = false) ∧
  (d_kind_sp d = true → i_sp ifl = default "" (f_sp fl)) ∧
  (d_label_sp d = true → default "" (f_sp fl) = "") ∧
  (d_kind_rx d = true → i_rp ifl = default "" (f_rp fl) ∧
     map_Forall (λ e _, String.prefix (i_sp ifl) (default "" (f_rp fl) +:+ e) = false) (edges H)) ∧
  (d_label_rx d = true → map_Forall (λ _ rx, r_rule rx = i_default_rule ifl) (edges H)).
Global Instance edit_ok_dec fl ifl d H : Decision (edit_ok fl ifl d H).
Proof. unfold edit_ok. apply _. Defined.

(** node attributes deleted only (the arcs as exported by [fl]) *)
Lemma roundtrip_nodes_edited (fl : bflags) (ifl : iflags) (d : drops) (H : net) :
  wf16 H → f_eid fl = true → bip_names_ok fl H → d_stoich d = false → d_role d = false → edit_ok fl ifl d H →
  (bipartite_to_hypergraph ifl (drop_attrs d (hypergraph_to_bipartite fl H))).2 = None ∧
  edges (bipartite_to_hypergraph ifl (drop_attrs d (hypergraph_to_bipartite fl H))).1 = cvr fl <$> edges H ∧
  species (bipartite_to_hypergraph ifl (drop_attrs d (hypergraph_to_bipartite fl H))).1 = occurring H ∧
  mol (bipartite_to_hypergraph ifl (drop_attrs d (hypergraph_to_bipartite fl H))).1
    = if f_mol fl && i_mol ifl && negb (d_mol d) then filter (λ p, p.1 ∈ occurring H) (mol H) else ∅.
Proof.
  intros Hwf16 Heid Hnames Hst Hro (Hint & Hksp & Hlsp & Hkrx & Hlrx).
  pose proof Hwf16 as (Hwf & Hwsp & _ & _).
  assert (bipartite_to_hypergraph ifl (drop_attrs d (hypergraph_to_bipartite fl H))
          = bipartite_to_hypergraph (with_mol ifl (i_mol ifl && negb (d_mol d))) (hypergraph_to_bipartite fl H)) as ->.
  { destruct (export_spec fl H Hwsp Hnames) as (Ms & Rs & HS).
    apply (import_drop fl ifl d H _ Ms Rs HS); try done.
    - intros Hd. destruct (f_int fl); [|done]. destruct (Hint eq_refl) as (? & _ & ?). destruct Hd; congruence.
    - intros Hd. destruct (f_int fl); [|done]. destruct (Hint eq_refl) as (_ & ? & _). congruence.
    - intros Hd. destruct (Hkrx Hd) as [Hq Hall]. split; [done|]. intros e [rx Hrx]. by apply (Hall e rx Hrx). }
  destruct (bipartite_roundtrip_gen fl (with_mol ifl (i_mol ifl && negb (d_mol d))) H Hwf16 Heid Hnames) as (H1 & H2 & H3 & H4).
  split; [done|]. split; [done|]. split; [done|]. rewrite H4. cbn [i_mol with_mol]. by rewrite andb_assoc.
Qed.

(** ANY deletion: the arc part is the export with the flags switched off ([export_drop_arcs]), the node part is re-derived *)
Lemma bipartite_roundtrip_edited (fl : bflags) (ifl : iflags) (d : drops) (H : net) :
  wf16 H → f_eid fl = true → bip_names_ok fl H → edit_ok fl ifl d H →
  (bipartite_to_hypergraph ifl (drop_attrs d (hypergraph_to_bipartite fl H))).2 = None ∧
  edges (bipartite_to_hypergraph ifl (drop_attrs d (hypergraph_to_bipartite fl H))).1 = cvr (fl_drop fl d) <$> edges H ∧
  species (bipartite_to_hypergraph ifl (drop_attrs d (hypergraph_to_bipartite fl H))).1 = occurring H ∧
  mol (bipartite_to_hypergraph ifl (drop_attrs d (hypergraph_to_bipartite fl H))).1
    = if f_mol fl && i_mol ifl && negb (d_mol d) then filter (λ p, p.1 ∈ occurring H) (mol H) else ∅.
Proof.
  intros Hwf Heid Hnames Hok.
  rewrite (drop_split d), <-(export_drop_arcs fl d H).
  exact (roundtrip_nodes_edited (fl_drop fl d) ifl (nodes_only d) H Hwf Heid Hnames eq_refl eq_refl Hok).
Qed.

(** the default prefixes "S:" / "R:" on both sides *)
Lemma untagged_default_prefixes (fl : bflags) (d : drops) (mol_attr : bool) (H : net) :
  wf16 H → f_eid fl = true → f_stoich fl = true → f_int fl = false → f_sp fl = Some "S:" → f_rp fl = Some "R:" →
  d_stoich d = false → d_label_sp d = false →
  (d_label_rx d = true → map_Forall (λ _ rx, r_rule rx = "r") (edges H)) →
  (bipartite_to_hypergraph (default_iflags mol_attr) (drop_attrs d (hypergraph_to_bipartite fl H))).2 = None ∧
  edges (bipartite_to_hypergraph (default_iflags mol_attr) (drop_attrs d (hypergraph_to_bipartite fl H))).1 = edges H.
Proof.
  intros Hwf Heid Hsto Hint Hsp Hrp Hst Hlsp Hlrx.
  destruct (bipartite_roundtrip_edited fl (default_iflags mol_attr) d H Hwf Heid) as (H1 & H2 & _).
  - by apply default_prefixes_ok.
  - unfold edit_ok. rewrite Hsp, Hrp, Hint, Hlsp. cbn.
    split; [done|]. split; [done|]. split; [done|]. split; [|done].
    intros _. split; [done|]. by intros e rx _.
  - split; [done|]. rewrite H2. rewrite (map_fmap_ext _ id); [apply map_fmap_id|].
    intros e rx _. apply cvr_id. unfold fl_drop. cbn. by rewrite Hsto, Hst.
Qed.

(** * non-vacuity, and the premises are needed *)
Definition exd_net : net :=
  mk_net ["K"] [(None, "r", [("A", 2%Z)], [("B", 1%Z); ("A", 1%Z)]); (Some "x", "r", [("B", 1%Z)], [("C", 12%Z)])] [("A", "CCO")].
Definition exd_fl (sp rp : option string) (int_ : bool) : bflags := BFlags sp rp 0 1 true true true int_ true true.
Definition exd_untagged : drops := Drops true true false false false false false true.      (* no kind, no marker *)
Definition exd_bare : drops := Drops true true true true false false true true.            (* only edge_id, stoich, role left *)
Definition exd_back (fl : bflags) (ifl : iflags) (d : drops) : net * option cerr :=
  bipartite_to_hypergraph ifl (drop_attrs d (hypergraph_to_bipartite fl exd_net)).

Example ex_edit_untagged :
  bool_decide (wf16 exd_net) = true ∧
  bool_decide (edit_ok (exd_fl (Some "S:") (Some "R:") false) (default_iflags true) exd_untagged exd_net) = true ∧
  (exd_back (exd_fl (Some "S:") (Some "R:") false) (default_iflags true) exd_untagged).2 = None ∧
  bool_decide (edges (exd_back (exd_fl (Some "S:") (Some "R:") false) (default_iflags true) exd_untagged).1 = edges exd_net) = true ∧
  size (edges exd_net) = 2%nat.
Proof. split_and!; by vm_compute. Qed.

(** everything but the id and the coefficients deleted: un-prefixed species ids, the importer told the reaction prefix
    and that the rule is "r" *)
Example ex_edit_bare :
  bool_decide (edit_ok (exd_fl None (Some "R:") false) (IFlags "" "R:" "r" true) exd_bare exd_net) = false ∧
  bool_decide (edit_ok (exd_fl None (Some "R:") false) (IFlags "" "R:" "r" true) (Drops true false true true false false true true) exd_net) = true ∧
  bool_decide (edges (exd_back (exd_fl None (Some "R:") false) (IFlags "" "R:" "r" true)
                               (Drops true false true true false false true true)).1 = edges exd_net) = true.
Proof. split_and!; by vm_compute. Qed.

(** integer ids cannot be recognised by a prefix: without `kind` the network is lost (the degree heuristic takes product
    species for reactions and has to invent ids for them) *)
Example ex_edit_int_needed :
  bool_decide (edit_ok (exd_fl (Some "S:") (Some "R:") true) (default_iflags true) exd_untagged exd_net) = false ∧
  (exd_back (exd_fl (Some "S:") (Some "R:") true) (default_iflags true) exd_untagged).2 = Some EUnmodelled.
Proof. split_and!; by vm_compute. Qed.

(** a species prefix that also matches the reaction node ids: the untagged reaction nodes are taken for species *)
Example ex_edit_prefix_needed :
  bool_decide (edit_ok (exd_fl (Some "") (Some "R:") false) (IFlags "" "R:" "r" true) exd_untagged exd_net) = false ∧
  bool_decide (edges (exd_back (exd_fl (Some "") (Some "R:") false) (IFlags "" "R:" "r" true) exd_untagged).1 = edges exd_net) = false.
Proof. split_and!; by vm_compute. Qed.

(** coefficients and roles deleted as well (and every `kind`): the supports come back under the same ids *)
Definition exd_all_arcs : drops := Drops true true false false true true false true.
Example ex_edit_arcs :
  bool_decide (edit_ok (exd_fl (Some "S:") (Some "R:") false) (default_iflags true) exd_all_arcs exd_net) = true ∧
  bool_decide (edges (exd_back (exd_fl (Some "S:") (Some "R:") false) (default_iflags true) exd_all_arcs).1
               = cvr (fl_drop (exd_fl (Some "S:") (Some "R:") false) exd_all_arcs) <$> edges exd_net) = true ∧
  bool_decide (edges (exd_back (exd_fl (Some "S:") (Some "R:") false) (default_iflags true) exd_all_arcs).1 = edges exd_net) = false ∧
  (r_rhs <$> edges (exd_back (exd_fl (Some "S:") (Some "R:") false) (default_iflags true) exd_all_arcs).1 !! "x") = Some {[ "C" := 1%positive ]}.
Proof. split_and!; by vm_compute. Qed.
