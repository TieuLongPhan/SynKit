(** C04 — _explicit_h does not raise on the ITS glued from a default-mode rule along a valid match, provided every stripped
    template hydrogen has no more bonds on the reactant side than on the product side of the template (a boolean of the
    template and the prepared rule; for a hydrogen atom with one bond on each side it is 1 <= 1).  Instance of the criterion of
    proof/C04_Total.v: the transfers are the stripped hydrogens, transfer [h] changes the count of the image of atom [k] by
    (bonds h-k on the reactant side) - (bonds h-k on the product side), all atoms it touches carry its pair id (C03: pair ids
    are complete).  The identity match on the own substrate is the case the reaction's own templates need. *)
From Coq Require Import List NArith ZArith Bool Lia Permutation.
From SK Require Import lib.LGraph model.C03_Model model.C04_Model model.C04_Reactor proof.C03_Proof proof.C03_StripCor proof.C03_PairIdsComplete
                       proof.C03_ExplicitTotal proof.C04_Glue proof.C04_Any proof.C04_DefaultProof proof.C04_Total model.C03_Order proof.C03_Ord.
Import ListNotations.
Local Open Scope Z_scope.

Lemma sumX_sub {X} (f g : X -> Z) (l : list X) : sumX (fun h => f h - g h) l = sumX f l - sumX g l.
Proof. induction l as [|x r IH]; simpl; [reflexivity|]. rewrite IH. lia. Qed.
Lemma sumX_zero {X} (f : X -> Z) (l : list X) : (forall h, In h l -> f h = 0) -> sumX f l = 0.
Proof. induction l as [|x r IH]; simpl; intros H; [reflexivity|]. rewrite (H x (or_introl eq_refl)), IH; [reflexivity|]. intros h I. apply H. right. exact I. Qed.
Lemma sumX_ext {X} (f g : X -> Z) (l : list X) : (forall h, In h l -> f h = g h) -> sumX f l = sumX g l.
Proof. induction l as [|x r IH]; simpl; intros H; [reflexivity|]. rewrite (H x (or_introl eq_refl)), IH; [reflexivity|]. intros h I. apply H. right. exact I. Qed.

(** sums over two duplicate-free lists, restricted to each other *)
Lemma sumF_mem_single (f : N -> Z) (x : N) (S : list N) : NoDup S ->
  sumF (fun k => if N.eqb k x then f k else 0) S = if mem x S then f x else 0.
Proof.
  induction S as [|y r IH]; intros H; simpl; [reflexivity|]. inversion H as [|? ? Hy Hr]; subst. rewrite (IH Hr).
  rewrite (N.eqb_sym x y). destruct (N.eqb_spec y x) as [->|Ne]; simpl.
  - destruct (mem x r) eqn:E; [apply mem_spec in E; contradiction|lia].
  - reflexivity.
Qed.
Lemma sumF_plus (f g : N -> Z) l : sumF (fun n => f n + g n) l = sumF f l + sumF g l.
Proof. induction l as [|x r IH]; simpl; [reflexivity|]. rewrite IH. lia. Qed.
Lemma double_count (f : N -> Z) (c S : list N) : NoDup c -> NoDup S ->
  sumF (fun n => if mem n S then f n else 0) c = sumF (fun k => if mem k c then f k else 0) S.
Proof.
  intros Hc HS. induction c as [|x r IH]; simpl.
  - symmetry. apply sumF_zero. intros; reflexivity.
  - inversion Hc as [|? ? Hx Hr]; subst. rewrite (IH Hr).
    rewrite <- (sumF_mem_single f x S HS), <- sumF_plus. apply sumF_ext. intros k Ik. cbn [mem existsb]. fold (mem k r).
    destruct (N.eqb_spec k x) as [E|Ne]; simpl.
    + subst k. destruct (mem x r) eqn:E; [apply mem_spec in E; contradiction|lia].
    + destruct (mem k r); lia.
Qed.

(** a bond counted on one side of the template makes the two atoms neighbours in the template *)
Lemma cnt_side_nbr (sn : inode -> nattr) (se : iedge -> Z) (tpl : its) h k :
  cnt (flat_map (fun e : N * N * iedge => let '(u, v, x) := e in if 0 <? se x then [(u, v, se x)] else []) (gedges tpl)) h k <> 0 ->
  h <> k -> In k (nbrs tpl h).
Proof.
  unfold cnt. intros Hc Hne.
  destruct (filter _ _) as [|e0 es] eqn:Ef; [exfalso; apply Hc; reflexivity|].
  assert (I0 : In e0 (e0 :: es)) by (left; reflexivity). rewrite <- Ef in I0. apply filter_In in I0. destruct I0 as [I0 Hp].
  apply in_flat_map in I0. destruct I0 as ([[u v] x] & Ix & I'). destruct (0 <? se x); [|destruct I'].
  destruct I' as [I'|[]]. subst e0. cbn [fst snd] in Hp. unfold nbrs. apply in_flat_map. exists (u, v, x). split; [exact Ix|].
  destruct (peq_elim _ _ _ _ Hp) as [[-> ->]|[-> ->]].
  - rewrite N.eqb_refl. left. reflexivity.
  - destruct (N.eqb_spec k h) as [E|_]; [exfalso; apply Hne; symmetry; exact E|]. rewrite N.eqb_refl. left. reflexivity.
Qed.

Lemma h_nodes_i_spec (g : its) h : NoDup (node_ids g) -> (In h (h_nodes_i g) <-> is_H_i g h = true).
Proof.
  intros Hnd. unfold h_nodes_i, is_H_i. split.
  - intros I. apply in_map_iff in I. destruct I as ([k a] & E & I). simpl in E; subst. apply filter_In in I. destruct I as [I Ha].
    rewrite (label_in g h a Hnd I). exact Ha.
  - destruct (label g h) as [a|] eqn:E; [|discriminate]. intros Ha. apply in_map_iff. exists (h, a). split; [reflexivity|].
    apply filter_In. split; [apply assoc_in; exact E|exact Ha].
Qed.

(** * _explicit_h does not raise on the ITS glued from a default-mode rule along ANY valid match onto ANY substrate, if the
      template's hydrogens satisfy [valence_okb] (model/C04_Reactor.v): _explicit_h only looks at the matched atoms, which
      carry the rule's hydrogen changes and pair ids whatever the substrate is *)
Lemma sumF_map (g : N -> Z) (f : N -> N) (l : list N) : sumF g (map f l) = sumF (fun p => g (f p)) l.
Proof. induction l as [|x r IH]; simpl; [reflexivity|]. rewrite IH. reflexivity. Qed.

Lemma pair_snd_inj (m : list (N * N)) p q n : NoDup (map snd m) -> In (p, n) m -> In (q, n) m -> p = q.
Proof.
  induction m as [|[a b] t IH]; intros Hv Ep Eq; [destruct Ep|]. simpl in Hv. inversion Hv as [|? ? H1 H2]; subst.
  destruct Ep as [Ep|Ep], Eq as [Eq|Eq].
  - congruence.
  - inversion Ep; subst. exfalso. apply H1. change n with (snd (q, n)). apply in_map. exact Eq.
  - inversion Eq; subst. exfalso. apply H1. change n with (snd (p, n)). apply in_map. exact Ep.
  - exact (IH H2 Ep Eq).
Qed.

Section TotalAny.
  Variables (A B : hostg) (tpl rc : its) (l r : molg) (host : hostg) (y : mapping) (T : its).
  Hypothesis PW : pair_wf A B.
  Hypothesis D : describes A B tpl.
  Hypothesis OK : default_okb A B tpl = true.
  Hypothesis Es : synrule tpl true = Some (rc, l, r).
  Hypothesis Hwr : wf_rcb rc = true.
  Hypothesis Hy : match_rcb host rc y = true.
  Hypothesis Hg : glue host rc y = Some T.
  Hypothesis VAL : valence_okb tpl rc = true.

  Let EG := gedges (side0 iG eG tpl).
  Let EH := gedges (side0 iH eH tpl).
  Let Hnd0 : nodupb (node_ids tpl) = true := tpl_nodupb A B tpl D.
  Let Hel := tpl_el A B tpl PW D.
  Let Nrc : NoDup (node_ids rc) := wf_rc_nodup rc Hwr.
  Let MO : match_ok host rc y := match_rcb_sound host rc y Nrc Hy.

  (** the match as a function, and the rule atom glued onto a substrate atom *)
  Definition yf (p : N) : N := match mget y p with Some h => h | None => 0%N end.
  Definition yinv (n : N) : option N := find (fun p => N.eqb (yf p) n) (node_ids rc).

  Lemma y_total p : In p (node_ids rc) -> mget y p = Some (yf p).
  Proof.
    intros I. destruct (in_ids_label rc p I) as [pn Ep]. destruct (mo_nodes _ _ _ MO p pn (assoc_in p (gnodes rc) Ep)) as (h & _ & E & _).
    unfold yf. rewrite E. reflexivity.
  Qed.
  Lemma y_inj p q : In p (node_ids rc) -> In q (node_ids rc) -> yf p = yf q -> p = q.
  Proof.
    intros Ip Iq E. pose proof (y_total p Ip) as Ep. pose proof (y_total q Iq) as Eq. rewrite E in Ep.
    unfold mget in Ep, Eq. apply assoc_in in Ep, Eq.
    exact (pair_snd_inj y p q (yf q) (mo_vals _ _ _ MO) Ep Eq).
  Qed.
  Lemma yinv_some n p : yinv n = Some p -> In p (node_ids rc) /\ yf p = n.
  Proof. unfold yinv. intros E. apply find_some in E. destruct E as [I E]. apply N.eqb_eq in E. auto. Qed.
  Lemma yinv_of p : In p (node_ids rc) -> yinv (yf p) = Some p.
  Proof.
    intros I. unfold yinv. destruct (find (fun q => N.eqb (yf q) (yf p)) (node_ids rc)) as [q|] eqn:E.
    - apply find_some in E. destruct E as [Iq E]. apply N.eqb_eq in E. f_equal. exact (y_inj q p Iq I E).
    - exfalso. pose proof (find_none _ _ E p I) as K. simpl in K. rewrite N.eqb_refl in K. discriminate.
  Qed.
  Lemma yinv_none n : yinv n = None -> ~ In n (map snd y).
  Proof.
    intros E I. apply in_map_iff in I. destruct I as ([p h] & Eh & I). simpl in Eh. subst h.
    assert (Ip : In p (node_ids rc)).
    { apply (Permutation_in _ (Permutation_sym (mo_perm _ _ _ MO))). change p with (fst (p, n)). apply in_map. exact I. }
    assert (Em : mget y p = Some n) by (unfold mget; apply assoc_nodup_in; [exact (mo_keys _ _ _ MO)|exact I]).
    pose proof (y_total p Ip) as Et. rewrite Em in Et. inversion Et as [En].
    pose proof (find_none _ _ E p Ip) as K. simpl in K. rewrite <- En, N.eqb_refl in K. discriminate.
  Qed.

  Theorem any_match_balanced : pairs_okb T = true.
  Proof.
    pose proof (nodupb_NoDup _ Hnd0) as Hnd.
    destruct (default_rule_spec A B tpl PW D OK rc l r Es) as (R & _ & RH & _ & _ & _ & RCi & RCa & _).
    pose proof (fun h => proj2 (RH h)) as AllH. pose proof (fun h => proj1 (RH h)) as RinH.
    assert (Delta : forall k a, label rc k = Some a -> a_hc (iG a) - a_hc (iH a) = sumX (fun h => cnt EG h k - cnt EH h k) R).
    { intros k a Ea. destruct (proj1 (RCi k) (label_some_in rc k a Ea)) as [Ik NR].
      destruct (in_ids_label tpl k Ik) as [a0 Ea0]. destruct (RCa k a0 Ea0 NR) as (a' & Ea' & _ & _ & _ & _ & C1 & C2).
      rewrite Ea in Ea'. inversion Ea'; subst a'. rewrite C1, C2, sumX_sub. reflexivity. }
    assert (Tin : forall k a, label rc k = Some a -> exists hn, label T (yf k) = Some (IN hn (NA (a_el hn) (a_aro hn) (a_hc hn - (a_hc (iG a) - a_hc (iH a))) (a_ch (iH a)) (a_nb hn)) 0
                                  (match i_hp a with Some l0 => Some l0 | None => None end))).
    { intros k a Ea. destruct (glued_node host rc y T Hwr Hy Hg k (yf k) a) as (hn & _ & Hl).
      - exact (y_total k (label_some_in rc k a Ea)).
      - exact (assoc_in k (gnodes rc) Ea).
      - exists hn. exact Hl. }
    set (f := fun (h k : N) => cnt EG h k - cnt EH h k).
    apply (balanced_components T N R (fun h n => match yinv n with Some p => f h p | None => 0 end)).
    - intros n. destruct (yinv n) as [p|] eqn:Ei.
      + destruct (yinv_some n p Ei) as [Ip <-]. destruct (in_ids_label rc p Ip) as [a Ea]. destruct (Tin p a Ea) as (hn & Hl).
        unfold dl_of. rewrite Hl. unfold delta_h, f. cbn [iG iH a_hc]. rewrite <- (Delta p a Ea). lia.
      + rewrite sumX_zero by (intros; reflexivity). unfold dl_of. rewrite (unglued_node host rc y T Hg n (yinv_none n Ei)).
        destruct (label host n); simpl; [unfold delta_h; simpl; lia|reflexivity].
    - intros h Ih. pose proof (RinH h Ih) as Hh. destruct (all_H_strippable A B tpl OK h Hh) as [S1 S2].
      destruct (synrule_default_pairs_complete tpl rc l r Hnd0 Hel Es h Hh S1 S2) as (pid & Hp). exists pid. intros n Wn.
      destruct (yinv n) as [p|] eqn:Ei; [|exfalso; apply Wn; reflexivity]. destruct (yinv_some n p Ei) as [Ip <-].
      destruct (proj1 (RCi p) Ip) as [In_ NR].
      assert (Hne : h <> p) by (intros ->; contradiction).
      assert (Inb : In p (nbrs tpl h)).
      { unfold f in Wn. destruct (Z.eq_dec (cnt EG h p) 0) as [Z1|Z1].
        - assert (Z2 : cnt EH h p <> 0) by lia. exact (cnt_side_nbr iH eH tpl h p Z2 Hne).
        - exact (cnt_side_nbr iG eG tpl h p Z1 Hne). }
      assert (NHn : is_H_i tpl p = false).
      { destruct (is_H_i tpl p) eqn:E; [|reflexivity]. exfalso. apply NR. apply AllH. exact E. }
      assert (Hasn : has_node tpl p = true).
      { destruct (in_ids_label tpl p In_) as [a0 Ea0]. unfold has_node. rewrite Ea0. reflexivity. }
      destruct (Hp p Inb NHn Hasn) as (An & EAn & PAn). destruct (Tin p An EAn) as (hn & Hl).
      eexists. split; [exact (assoc_in (yf p) (gnodes T) Hl)|]. unfold hp_of in *. cbn [i_hp]. destruct (i_hp An); exact PAn.
    - intros h c Ih Hc Hsup.
      set (img := map yf (node_ids rc)).
      assert (Nimg : NoDup img).
      { unfold img. apply NoDup_map_inj; [exact Nrc|]. intros a b Ia Ib E. exact (y_inj a b Ia Ib E). }
      set (g := fun n => match yinv n with Some p => f h p | None => 0 end).
      assert (E1 : sumF g c = sumF (fun n => if mem n img then g n else 0) c).
      { apply sumF_ext. intros n _. destruct (mem n img) eqn:Em; [reflexivity|]. unfold g. destruct (yinv n) as [p|] eqn:Ei; [|reflexivity].
        destruct (yinv_some n p Ei) as [Ip <-]. exfalso. assert (mem (yf p) img = true); [|congruence]. apply mem_spec. unfold img. apply in_map. exact Ip. }
      fold g. rewrite E1, (double_count g c img Hc Nimg).
      assert (E2 : sumF (fun k => if mem k c then g k else 0) img = sumF g img).
      { apply sumF_ext. intros n _. destruct (mem n c) eqn:Em; [reflexivity|]. destruct (Z.eq_dec (g n) 0) as [Z0|Z0]; [symmetry; exact Z0|].
        exfalso. assert (In n c); [apply Hsup; exact Z0|]. apply mem_spec in H. congruence. }
      rewrite E2. unfold img. rewrite sumF_map.
      rewrite (sumF_ext _ (f h) (node_ids rc)) by (intros p Ip; unfold g; rewrite (yinv_of p Ip); reflexivity).
      unfold valence_okb in VAL. eapply forallb_elim in VAL; [|exact (proj2 (h_nodes_i_spec tpl h Hnd) (RinH h Ih))]. apply Z.leb_le in VAL. exact VAL.
  Qed.

  Theorem any_match_total : explicit_h T <> None.
  Proof. intros E. apply explicit_h_crash_iff in E. rewrite any_match_balanced in E. discriminate. Qed.
  Theorem any_match_total_ord (ord : list N -> list N) :
    (forall l0 x, In x (ord l0) <-> In x l0) -> (forall l0, NoDup l0 -> NoDup (ord l0)) -> explicit_h_ord ord T <> None.
  Proof. intros O1 O2 E. apply (explicit_h_ord_crash_iff ord O1 O2) in E. rewrite any_match_balanced in E. discriminate. Qed.
End TotalAny.

Theorem default_total (A B : hostg) (tpl rc : its) (l r : molg) (T : its) :
  pair_wf A B -> describes A B tpl -> default_okb A B tpl = true -> synrule tpl true = Some (rc, l, r) ->
  describes (h_to_implicit_host A) (h_to_implicit_host B) rc ->
  glue (h_to_implicit_host A) rc (id_map (node_ids rc)) = Some T -> valence_okb tpl rc = true -> explicit_h T <> None.
Proof.
  intros PW D OK Es D' Hg VAL.
  exact (any_match_total A B tpl rc l r _ _ T PW D OK Es (d_wf _ _ _ D') (fits_match_rc _ _ rc (d_fits _ _ _ D')) Hg VAL).
Qed.

(** * the default mode to the end of its_list WITHOUT assuming that _explicit_h returns: for the reaction's own templates the
      premise of C04_identity_default_end follows from a boolean of the template and the prepared rule ([valence_okb]) *)
Theorem default_identity_end_total (core invert : bool) (G H : hostg) :
  pair_wfb G H = true -> mode_E G H = true ->
  default_okb (if invert then H else G) (if invert then G else H) (template core invert G H) = true ->
  (core = true -> centre_carries (its_construct G H) = true) ->
  own_valence_okb core invert G H = true ->
  exists T' : its, regenerate core invert G H = Some T' /\
    regen_folded T' (if invert then H else G) (if invert then G else H) = true.
Proof.
  intros W ME OK CC VAL. apply (default_identity_end core invert G H W ME OK CC).
  intros rc l r T Er Hg.
  pose proof (pair_AB' core invert G H W OK) as PW. pose proof (own_describes core invert G H W OK CC) as D.
  destruct (default_rule _ _ _ PW D OK) as (rc0 & l0 & r0 & Es & Ep & El & PW' & D').
  assert (E3 : (rc0, l0, r0) = (rc, l, r)).
  { unfold rule_of in Er. rewrite ME in Er. rewrite Es in Er. inversion Er. reflexivity. }
  inversion E3; subst rc0 l0 r0. clear E3.
  unfold own_valence_okb in VAL. rewrite Er in VAL.
  rewrite Ep, El in Hg. unfold substrate in Hg.
  exact (default_total _ _ _ rc l r T PW D OK Es D' Hg VAL).
Qed.
