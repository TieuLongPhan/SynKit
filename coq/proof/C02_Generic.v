(** C02 — get_rc proved once, generically in the node type ([get_rc_g], model/C02_Store.v): the passes as insertions
    and appended bond lists, which atoms and bonds the centre has under every option setting, well-formedness,
    idempotence, renumbering.  [get_rc_x] (model/C02_Model.v) and [get_rc_S] are instances of [get_rc_g]. *)
From Coq Require Import List NArith ZArith Bool Lia.
From SK Require Import lib.LGraph lib.C01_GraphLemmas model.C02_Model model.C02_Store proof.C02_Ball.
Import ListNotations.
Local Open Scope Z_scope.

(** * generic list facts *)
Lemma find_edge_map {B C} (f : B -> C) (es : list (N * N * B)) u v :
  find_edge u v (map (fun e => let '(a, b, x) := e in (a, b, f x)) es) = option_map f (find_edge u v es).
Proof.
  induction es as [|[[a b] x] r IH]; simpl; [reflexivity|].
  destruct ((N.eqb a u && N.eqb b v) || (N.eqb a v && N.eqb b u)); [reflexivity|exact IH].
Qed.

Lemma find_edge_pair_eq {B} (es : list (N * N * B)) a b u v :
  (N.eqb a u && N.eqb b v) || (N.eqb a v && N.eqb b u) = true -> find_edge u v es = find_edge a b es.
Proof.
  intros E. apply match_pair_spec in E. destruct E as [[-> ->]|[-> ->]]; [reflexivity|apply find_edge_sym].
Qed.

Lemma find_edge_filter {B} (p : N -> N -> B -> bool) (es : list (N * N * B)) :
  simple es -> (forall a b x, p a b x = p b a x) -> forall u v,
  find_edge u v (filter (fun e => p (fst (fst e)) (snd (fst e)) (snd e)) es) =
  match find_edge u v es with Some x => if p u v x then Some x else None | None => None end.
Proof.
  intros Hs Hp u v. induction Hs as [|a b x es Hn Hs IH]; simpl; [reflexivity|].
  destruct ((N.eqb a u && N.eqb b v) || (N.eqb a v && N.eqb b u)) eqn:E.
  - assert (p u v x = p a b x) as Ep.
    { apply match_pair_spec in E. destruct E as [[-> ->]|[-> ->]]; [reflexivity|apply Hp]. }
    rewrite Ep. destruct (p a b x); simpl.
    + rewrite E. reflexivity.
    + rewrite IH, (find_edge_pair_eq es a b u v E), Hn. reflexivity.
  - destruct (p a b x); simpl; [rewrite E|]; exact IH.
Qed.

Lemma find_edge_filter_iff {B} (p : B -> bool) (es : list (N * N * B)) : simple es -> forall u v x,
  find_edge u v (filter (fun e => p (snd e)) es) = Some x <-> find_edge u v es = Some x /\ p x = true.
Proof.
  intros Hs u v x. rewrite (find_edge_filter (fun _ _ y => p y) es Hs (fun _ _ _ => eq_refl)).
  destruct (find_edge u v es) as [y|]; [|split; [discriminate|intros [? _]; discriminate]].
  destruct (p y) eqn:P; split; [intros [= <-]; auto|intros [[= <-] _]; reflexivity|discriminate|intros [[= <-] C]; congruence].
Qed.

Lemma nodup_snoc (l : list N) n : NoDup l -> ~ In n l -> NoDup (l ++ [n]).
Proof. intros Hl Hn. apply (NoDup_Add (Add_app n l [])). rewrite app_nil_r. split; assumption. Qed.

(** edges appended unless the pair is already present: first wins *)
Definition add_absent {B} (new es : list (N * N * B)) : list (N * N * B) :=
  fold_left (fun es e => match find_edge (fst (fst e)) (snd (fst e)) es with Some _ => es | None => es ++ [e] end) new es.

Lemma find_add_absent {B} (new : list (N * N * B)) : forall es u v,
  find_edge u v (add_absent new es) = match find_edge u v es with Some x => Some x | None => find_edge u v new end.
Proof.
  induction new as [|[[a b] x] r IH]; intros es u v; simpl.
  - destruct (find_edge u v es); reflexivity.
  - unfold add_absent in *. simpl. destruct (find_edge a b es) as [y|] eqn:F.
    + rewrite IH. destruct (find_edge u v es) eqn:Fu; [reflexivity|].
      destruct ((N.eqb a u && N.eqb b v) || (N.eqb a v && N.eqb b u)) eqn:E; [|reflexivity].
      rewrite (find_edge_pair_eq es a b u v E) in Fu. congruence.
    + rewrite IH, find_edge_app. simpl. destruct (find_edge u v es); [reflexivity|].
      destruct ((N.eqb a u && N.eqb b v) || (N.eqb a v && N.eqb b u)); reflexivity.
Qed.

Lemma in_add_absent {B} (new : list (N * N * B)) : forall es e, In e (add_absent new es) -> In e es \/ In e new.
Proof.
  induction new as [|[[a b] x] r IH]; intros es e I; [left; exact I|]. unfold add_absent in *. simpl in I.
  apply IH in I. destruct I as [I|I]; [|right; right; exact I].
  destruct (find_edge a b es); [left; exact I|]. apply in_app_iff in I. destruct I as [I|[<-|[]]]; [left; exact I|right; left; reflexivity].
Qed.

Lemma simple_add_absent {B} (new : list (N * N * B)) : forall es, simple es -> simple (add_absent new es).
Proof.
  induction new as [|[[a b] x] r IH]; intros es Hs; [exact Hs|]. unfold add_absent in *. simpl. apply IH.
  destruct (find_edge a b es) eqn:F; [exact Hs|]. apply simple_snoc; assumption.
Qed.

Definition ends {B} (es : list (N * N * B)) : list N := flat_map (fun e => [fst (fst e); snd (fst e)]) es.
Definition oute (o : xedge -> xedge) (e : N * N * xedge) : N * N * xedge := let '(a, b, x) := e in (a, b, o x).
Definition p_inc (keep : bool) (e : N * N * xedge) : bool := include_x keep (snd e).

Lemma mem_ends {B} (es : list (N * N * B)) k :
  LGraph.mem k (ends es) = true <-> exists a b x, In (a, b, x) es /\ (k = a \/ k = b).
Proof.
  rewrite LGraph.mem_spec. unfold ends. rewrite in_flat_map. split.
  - intros ([[a b] x] & I & Hk). simpl in Hk. exists a, b, x. intuition.
  - intros (a & b & x & I & Hk). exists (a, b, x). simpl. intuition.
Qed.

Lemma simple_oute o (es : list (N * N * xedge)) : simple es -> simple (map (oute o) es).
Proof. intros Hs. unfold oute. apply (simple_map_attr (fun _ _ x => o x)). exact Hs. Qed.

Lemma bool_false_iff (b : bool) (P : Prop) : (b = true <-> P) -> (b = false <-> ~ P).
Proof. destruct b; intuition congruence. Qed.

Lemma include_x_mono m x : include_x false x = true -> include_x m x = true.
Proof. unfold include_x. simpl. rewrite orb_false_r. intros ->. reflexivity. Qed.
Lemma include_out_edge m x : include_x m (out_edge x) = include_x m x.
Proof. destruct x as [e [b|]]; reflexivity. Qed.
Lemma out_edge_idem x : out_edge (out_edge x) = out_edge x.
Proof. destruct x as [e [b|]]; reflexivity. Qed.
Lemma include_out_edge_rec m x : include_x m (out_edge_rec x) = changed (fst x).
Proof. unfold include_x, out_edge_rec, mtg_flag. simpl. rewrite andb_false_r. apply orb_false_r. Qed.

Section Generic.
Context {A : Type}.
Implicit Types (g : lgraph A xedge) (ns : list (N * A)) (es : list (N * N * xedge)).

(** * the node component: insertion, first wins *)
Definition ins_all g (f : A -> A) (l : list N) ns : list (N * A) := fold_left (fun ns n => ensure_g f g n ns) l ns.

Lemma assoc_ensure_g f g n ns k :
  assoc k (ensure_g f g n ns) =
  match assoc k ns with Some b => Some b | None => if N.eqb k n then option_map f (label g n) else None end.
Proof.
  unfold ensure_g, has_key_g. destruct (assoc n ns) as [b|] eqn:En.
  - destruct (assoc k ns) eqn:Ek; [reflexivity|]. destruct (N.eqb_spec k n) as [->|]; [congruence|reflexivity].
  - destruct (label g n) as [a|] eqn:L.
    + rewrite assoc_app. destruct (assoc k ns); [reflexivity|]. simpl. destruct (N.eqb k n); reflexivity.
    + destruct (assoc k ns); [reflexivity|]. destruct (N.eqb k n); reflexivity.
Qed.

Lemma assoc_ins_all g f l : forall ns k,
  assoc k (ins_all g f l ns) =
  match assoc k ns with Some b => Some b | None => if LGraph.mem k l then option_map f (label g k) else None end.
Proof.
  induction l as [|n l IH]; intros ns k; simpl.
  - destruct (assoc k ns); reflexivity.
  - unfold ins_all in *. simpl. rewrite IH, assoc_ensure_g. destruct (assoc k ns); [reflexivity|].
    destruct (N.eqb_spec k n) as [->|Hne]; simpl.
    + destruct (label g n); simpl; [reflexivity|]. destruct (LGraph.mem n l); reflexivity.
    + reflexivity.
Qed.

Lemma has_key_g_false n ns : has_key_g n ns = false -> ~ In n (map fst ns).
Proof. unfold has_key_g. destruct (assoc n ns) eqn:E; [discriminate|]. intros _. apply assoc_none. exact E. Qed.

Lemma ensure_g_nodup f g n ns : NoDup (map fst ns) -> NoDup (map fst (ensure_g f g n ns)).
Proof.
  intros Hn. unfold ensure_g. destruct (has_key_g n ns) eqn:Hk; [exact Hn|]. destruct (label g n); [|exact Hn].
  rewrite map_app. simpl. apply nodup_snoc; [exact Hn|apply has_key_g_false; exact Hk].
Qed.

Lemma ins_all_nodup g f l : forall ns, NoDup (map fst ns) -> NoDup (map fst (ins_all g f l ns)).
Proof.
  induction l as [|n l IH]; intros ns Hn; [exact Hn|]. unfold ins_all in *. simpl. apply IH, ensure_g_nodup, Hn.
Qed.

(** a pass that copies the bonds selected by [p] (attributes [o]) and inserts their endpoints (labels [f]) into an empty
    centre: exactly those bonds, exactly those atoms *)
Lemma pass_spec g (f : A -> A) (p : xedge -> bool) o : wf g ->
  let L := filter (fun e : N * N * xedge => p (snd e)) (gedges g) in
  (forall u v y, find_edge u v (map (oute o) L) = Some y <-> exists x, adj g u v = Some x /\ p x = true /\ y = o x) /\
  (forall n b, assoc n (ins_all g f (ends L) []) = Some b <->
               exists a, label g n = Some a /\ b = f a /\ exists u v x, In (u, v, x) (gedges g) /\ p x = true /\ (n = u \/ n = v)).
Proof.
  intros W L. split.
  - intros u v y. unfold oute. rewrite find_edge_map. unfold L.
    rewrite (find_edge_filter (fun _ _ x => p x) (gedges g) (wf_simple W) (fun _ _ _ => eq_refl) u v).
    fold (adj g u v). destruct (adj g u v) as [x|]; [|split; [discriminate|intros (x & E & _); discriminate]].
    destruct (p x) eqn:I; simpl.
    + split; [intros [= <-]; exists x; auto|intros (x' & [= <-] & _ & ->); reflexivity].
    + split; [discriminate|intros (x' & [= <-] & C & _); congruence].
  - intros n b. rewrite assoc_ins_all. simpl.
    assert (LGraph.mem n (ends L) = true <-> exists u v x, In (u, v, x) (gedges g) /\ p x = true /\ (n = u \/ n = v)) as M.
    { rewrite mem_ends. unfold L. split; intros (u & v & x & F & H); exists u, v, x; [apply filter_In in F|rewrite filter_In]; tauto. }
    destruct (LGraph.mem n (ends L)).
    + destruct (label g n) as [a|]; simpl.
      * split; [intros [= <-]; exists a; repeat split; auto; apply M; reflexivity|intros (a' & [= <-] & -> & _); reflexivity].
      * split; [discriminate|intros (a' & C & _); discriminate].
    + split; [discriminate|]. intros (a & _ & _ & H). apply M in H. discriminate.
Qed.

Variables sel selhh : A -> A.
Variables ish cc : A -> bool.
Local Notation rc := (get_rc_g sel selhh ish cc).

(** * the passes as insertions / appended edge lists *)
Definition p_hh g (e : N * N * xedge) : bool := is_hh_g ish g (fst (fst e)) (snd (fst e)).
Definition p_both ns (e : N * N * xedge) : bool := has_key_g (fst (fst e)) ns && has_key_g (snd (fst e)) ns.
(** the atoms on an included bond, the atoms on an H-H bond, in bond-list order *)
Definition inc_ends (m : bool) g : list N := ends (filter (p_inc m) (gedges g)).
Definition hh_ends g : list N := ends (filter (p_hh g) (gedges g)).

Lemma fold_changed_g_fst keep g L : forall st,
  fst (fold_left (step_changed_g sel keep g) L st) = ins_all g sel (ends (filter (p_inc keep) L)) (fst st).
Proof.
  induction L as [|[[u v] x] L IH]; intros st; simpl; [reflexivity|]. rewrite IH. unfold p_inc at 2. simpl.
  destruct (include_x keep x); reflexivity.
Qed.

Lemma fold_changed_g_snd keep g L : forall st,
  snd (fold_left (step_changed_g sel keep g) L st) = snd st ++ map (oute out_edge) (filter (p_inc keep) L).
Proof.
  induction L as [|[[u v] x] L IH]; intros st; simpl; [rewrite app_nil_r; reflexivity|]. rewrite IH.
  unfold p_inc at 2. simpl. destruct (include_x keep x); simpl; [rewrite <- app_assoc|]; reflexivity.
Qed.

Lemma fold_hh_g_fst g L : forall st,
  fst (fold_left (step_hh_g selhh ish g) L st) = ins_all g selhh (ends (filter (p_hh g) L)) (fst st).
Proof.
  induction L as [|[[u v] x] L IH]; intros st; simpl; [reflexivity|]. rewrite IH. unfold p_hh at 2. simpl.
  destruct (is_hh_g ish g u v); reflexivity.
Qed.

Lemma fold_hh_g_snd g L : forall st,
  snd (fold_left (step_hh_g selhh ish g) L st) = add_absent (map (oute out_edge) (filter (p_hh g) L)) (snd st).
Proof.
  induction L as [|[[u v] x] L IH]; intros st; simpl; [reflexivity|]. rewrite IH. unfold p_hh at 2. simpl.
  destruct (is_hh_g ish g u v); [|reflexivity]. simpl. unfold add_absent at 2. simpl.
  destruct (find_edge u v (snd st)); reflexivity.
Qed.

Lemma fold_reconnect_g ns L : forall es,
  fold_left (step_reconnect_g ns) L es = add_absent (map (oute out_edge_rec) (filter (p_both ns) L)) es.
Proof.
  induction L as [|[[u v] x] L IH]; intros es; simpl; [reflexivity|]. rewrite IH. unfold p_both at 2. simpl.
  destruct (has_key_g u ns && has_key_g v ns); simpl; [|reflexivity].
  unfold add_absent at 2. simpl. destruct (find_edge u v es); reflexivity.
Qed.

Lemma assoc_fold_charge_g L : NoDup (map fst L) -> forall ns k,
  assoc k (fold_left (step_charge_g sel cc) L ns) =
  match assoc k ns with
  | Some b => Some b
  | None => match assoc k L with Some a => if cc a then Some (sel a) else None | None => None end
  end.
Proof.
  induction L as [|[n a] L IH]; intros Hnd ns k; simpl.
  - destruct (assoc k ns); reflexivity.
  - inversion Hnd as [|? ? Hni Hnd']; subst. rewrite (IH Hnd'). unfold step_charge_g. simpl. unfold has_key_g.
    destruct (N.eqb_spec k n) as [->|Hne].
    + assert (assoc n L = None) as -> by (apply assoc_none; exact Hni).
      destruct (cc a); simpl; [|destruct (assoc n ns); reflexivity].
      destruct (assoc n ns) eqn:En; simpl; [rewrite En; reflexivity|].
      rewrite assoc_app, En. simpl. rewrite N.eqb_refl. reflexivity.
    + destruct (cc a && negb match assoc n ns with Some _ => true | None => false end); [|reflexivity].
      rewrite assoc_app. destruct (assoc k ns); [reflexivity|]. simpl.
      destruct (N.eqb_spec k n); [contradiction|reflexivity].
Qed.

Lemma fold_charge_g_nodup L : forall ns, NoDup (map fst ns) -> NoDup (map fst (fold_left (step_charge_g sel cc) L ns)).
Proof.
  induction L as [|[n a] L IH]; intros ns Hn; [exact Hn|]. simpl. apply IH. unfold step_charge_g. simpl.
  destruct (cc a); simpl; [|exact Hn]. destruct (has_key_g n ns) eqn:Hk; simpl; [exact Hn|].
  rewrite map_app. simpl. apply nodup_snoc; [exact Hn|apply has_key_g_false; exact Hk].
Qed.

(** * the centre: node labels and edge map, computationally *)
(** the atoms of the centre after the first two passes: all of them without [disconnected] *)
Definition conn_nodes (keep : bool) g : list (N * A) := ins_all g selhh (hh_ends g) (ins_all g sel (inc_ends keep g) []).

Lemma gnodes_rcg d m g :
  gnodes (rc d m g) = if d then fold_left (step_charge_g sel cc) (gnodes g) (conn_nodes m g) else conn_nodes m g.
Proof.
  unfold get_rc_g, conn_nodes, inc_ends, hh_ends. cbv zeta. rewrite fold_hh_g_fst, fold_changed_g_fst. destruct d; reflexivity.
Qed.

Lemma gedges_rcg d m g :
  gedges (rc d m g) =
  let es2 := add_absent (map (oute out_edge) (filter (p_hh g) (gedges g))) (map (oute out_edge) (filter (p_inc m) (gedges g))) in
  if d then add_absent (map (oute out_edge_rec) (filter (p_both (gnodes (rc d m g))) (gedges g))) es2 else es2.
Proof.
  unfold get_rc_g. cbv zeta. rewrite fold_hh_g_snd, fold_changed_g_snd. simpl. destruct d; simpl; [|reflexivity].
  rewrite fold_reconnect_g. reflexivity.
Qed.

(** without [disconnected] every bond of the centre is [out_edge] of a bond of the graph *)
Lemma rcg_edges_out m g e : In e (gedges (rc false m g)) -> exists e0, In e0 (gedges g) /\ e = oute out_edge e0.
Proof.
  rewrite gedges_rcg. cbv zeta. intros I. apply in_add_absent in I.
  destruct I as [I|I]; apply in_map_iff in I; destruct I as (e0 & <- & I); apply filter_In in I; exists e0; tauto.
Qed.

Lemma assoc_conn_nodes m g n :
  assoc n (conn_nodes m g) =
  match label g n with
  | None => None
  | Some a => if LGraph.mem n (inc_ends m g) then Some (sel a) else if LGraph.mem n (hh_ends g) then Some (selhh a) else None
  end.
Proof.
  unfold conn_nodes. rewrite !assoc_ins_all. simpl.
  destruct (label g n); simpl; [|destruct (LGraph.mem n (inc_ends m g)); destruct (LGraph.mem n (hh_ends g)); reflexivity].
  destruct (LGraph.mem n (inc_ends m g)); [reflexivity|]. destruct (LGraph.mem n (hh_ends g)); reflexivity.
Qed.

(** without [disconnected] no hypothesis on the graph is needed *)
Lemma label_rcg_conn m g n :
  label (rc false m g) n =
  match label g n with
  | None => None
  | Some a => if LGraph.mem n (inc_ends m g) then Some (sel a) else if LGraph.mem n (hh_ends g) then Some (selhh a) else None
  end.
Proof. unfold label at 1. rewrite gnodes_rcg. apply assoc_conn_nodes. Qed.

Lemma rcg_nodup_conn m g : NoDup (node_ids (rc false m g)).
Proof. unfold node_ids. rewrite gnodes_rcg. apply ins_all_nodup, ins_all_nodup. constructor. Qed.

Lemma label_rcg d m g : wf g -> forall n,
  label (rc d m g) n =
  match label g n with
  | None => None
  | Some a => if LGraph.mem n (inc_ends m g) then Some (sel a)
              else if LGraph.mem n (hh_ends g) then Some (selhh a)
              else if d && cc a then Some (sel a) else None
  end.
Proof.
  intros W n. destruct d.
  - unfold label at 1. rewrite gnodes_rcg, (assoc_fold_charge_g (gnodes g) (proj1 W)), assoc_conn_nodes. fold (label g n).
    destruct (label g n) as [a|]; [|reflexivity].
    destruct (LGraph.mem n (inc_ends m g)); [reflexivity|]. destruct (LGraph.mem n (hh_ends g)); [reflexivity|].
    simpl. destruct (cc a); reflexivity.
  - rewrite label_rcg_conn. destruct (label g n) as [a|]; [|reflexivity].
    destruct (LGraph.mem n (inc_ends m g)); [reflexivity|]. destruct (LGraph.mem n (hh_ends g)); reflexivity.
Qed.

Lemma is_hh_g_sym g u v : is_hh_g ish g u v = is_hh_g ish g v u.
Proof. unfold is_hh_g. apply andb_comm. Qed.

Lemma adj_rcg d m g : wf g -> forall u v,
  adj (rc d m g) u v =
  match adj g u v with
  | None => None
  | Some x => if include_x m x || is_hh_g ish g u v then Some (out_edge x)
              else if d && has_node (rc d m g) u && has_node (rc d m g) v then Some (out_edge_rec x)
              else None
  end.
Proof.
  intros W u v. pose proof (wf_simple W) as Hs. unfold adj at 1. rewrite gedges_rcg. cbv zeta.
  assert (forall o p, (forall a b x, p a b x = p b a x) ->
          find_edge u v (map (oute o) (filter (fun e => p (fst (fst e)) (snd (fst e)) (snd e)) (gedges g))) =
          match adj g u v with Some x => if p u v x then Some (o x) else None | None => None end) as F.
  { intros o p Hp. unfold oute. rewrite find_edge_map, (find_edge_filter p (gedges g) Hs Hp). unfold adj.
    destruct (find_edge u v (gedges g)) as [x|]; [|reflexivity]. destruct (p u v x); reflexivity. }
  pose proof (F out_edge (fun _ _ x => include_x m x) ltac:(reflexivity)) as F1.
  pose proof (F out_edge (fun a b _ => is_hh_g ish g a b) ltac:(intros; apply is_hh_g_sym)) as F2.
  pose proof (F out_edge_rec (fun a b _ => has_key_g a (gnodes (rc d m g)) && has_key_g b (gnodes (rc d m g)))
                ltac:(intros; apply andb_comm)) as F3.
  cbv beta in F1, F2, F3. unfold p_inc, p_hh, p_both.
  destruct d.
  - rewrite !find_add_absent, F1, F2, F3.
    destruct (adj g u v) as [x|]; [|reflexivity].
    destruct (include_x m x); simpl; [reflexivity|]. destruct (is_hh_g ish g u v); reflexivity.
  - rewrite find_add_absent, F1, F2. destruct (adj g u v) as [x|]; [|reflexivity].
    destruct (include_x m x); simpl; [reflexivity|]. destruct (is_hh_g ish g u v); reflexivity.
Qed.

(** * Prop-level vocabulary: the atom lies on an included bond / on an H-H bond *)
Definition inc_end_g (m : bool) g (n : N) : Prop := exists v x, adj g n v = Some x /\ include_x m x = true.
Definition hh_end_g g (n : N) : Prop := exists v x, adj g n v = Some x /\ is_hh_g ish g n v = true.

Lemma mem_inc_ends m g n : wf g -> (LGraph.mem n (inc_ends m g) = true <-> inc_end_g m g n).
Proof.
  intros W. unfold inc_ends. rewrite mem_ends. unfold inc_end_g. split.
  - intros (a & b & x & I & Hk). apply filter_In in I. destruct I as [I P]. unfold p_inc in P. simpl in P.
    destruct Hk as [-> | ->]; [exists b, x|exists a, x]; split; auto; apply (wf_adj_iff W); auto.
  - intros (v & x & A0 & P). apply (wf_adj_iff W) in A0. destruct A0 as [A0|A0].
    + exists n, v, x. split; [apply filter_In; auto|auto].
    + exists v, n, x. split; [apply filter_In; auto|auto].
Qed.

Lemma mem_hh_ends g n : wf g -> (LGraph.mem n (hh_ends g) = true <-> hh_end_g g n).
Proof.
  intros W. unfold hh_ends. rewrite mem_ends. unfold hh_end_g. split.
  - intros (a & b & x & I & Hk). apply filter_In in I. destruct I as [I P]. unfold p_hh in P. simpl in P.
    destruct Hk as [-> | ->]; [exists b, x|exists a, x]; split; auto; try (apply (wf_adj_iff W); auto).
    rewrite is_hh_g_sym. exact P.
  - intros (v & x & A0 & P). apply (wf_adj_iff W) in A0. destruct A0 as [A0|A0].
    + exists n, v, x. split; [apply filter_In; auto|auto].
    + exists v, n, x. split; [apply filter_In; split; [exact A0|unfold p_hh; simpl; rewrite is_hh_g_sym; exact P]|auto].
Qed.

(** ** nodes: which atoms, with which labels *)
Theorem rcg_nodes d m g : wf g -> forall n b,
  label (rc d m g) n = Some b <->
  exists a, label g n = Some a /\
    ((inc_end_g m g n /\ b = sel a) \/
     (~ inc_end_g m g n /\ hh_end_g g n /\ b = selhh a) \/
     (~ inc_end_g m g n /\ ~ hh_end_g g n /\ d = true /\ cc a = true /\ b = sel a)).
Proof.
  intros W n b. rewrite (label_rcg d m g W). pose proof (mem_inc_ends m g n W) as H1. pose proof (mem_hh_ends g n W) as H2.
  pose proof (bool_false_iff _ _ H1) as N1. pose proof (bool_false_iff _ _ H2) as N2.
  destruct (label g n) as [a|]; [|split; [discriminate|intros (a & L & _); discriminate]].
  destruct (LGraph.mem n (inc_ends m g)) eqn:M1.
  - split.
    + intros [= <-]. exists a. split; [reflexivity|]. left. split; [apply H1; reflexivity|reflexivity].
    + intros (a' & [= <-] & [[_ ->]|[[C _]|[C _]]]); [reflexivity| |]; exfalso; apply C, H1; reflexivity.
  - destruct (LGraph.mem n (hh_ends g)) eqn:M2.
    + split.
      * intros [= <-]. exists a. split; [reflexivity|]. right. left. repeat split; [apply N1|apply H2]; reflexivity.
      * intros (a' & [= <-] & [[C _]|[(_ & _ & ->)|(_ & C & _)]]); [|reflexivity|].
        -- apply H1 in C. congruence.
        -- exfalso. apply C, H2. reflexivity.
    + split.
      * destruct (d && cc a) eqn:Dc; [|discriminate]. apply andb_true_iff in Dc. destruct Dc as [-> Cc].
        intros [= <-]. exists a. split; [reflexivity|]. right. right. repeat split; auto; [apply N1|apply N2]; reflexivity.
      * intros (a' & [= <-] & [[C _]|[(_ & C & _)|(_ & _ & -> & Cc & ->)]]).
        -- apply H1 in C. congruence.
        -- apply H2 in C. congruence.
        -- simpl. rewrite Cc. reflexivity.
Qed.

(** ** edges: a bond of the graph is kept with [out_edge] iff it is included or an H-H bond; under [disconnected] every other
    bond between two atoms of the centre is kept as well, with [out_edge_rec] *)
Theorem rcg_edges d m g : wf g -> forall u v y,
  adj (rc d m g) u v = Some y <->
  exists x, adj g u v = Some x /\
    (((include_x m x = true \/ is_hh_g ish g u v = true) /\ y = out_edge x) \/
     (include_x m x = false /\ is_hh_g ish g u v = false /\ d = true /\
      In u (node_ids (rc d m g)) /\ In v (node_ids (rc d m g)) /\ y = out_edge_rec x)).
Proof.
  intros W u v y. rewrite (adj_rcg d m g W). destruct (adj g u v) as [x|]; [|split; [discriminate|intros (x & A0 & _); discriminate]].
  destruct (include_x m x || is_hh_g ish g u v) eqn:E.
  - split.
    + intros [= <-]. exists x. split; [reflexivity|]. left. split; [apply orb_true_iff; exact E|reflexivity].
    + intros (x' & [= <-] & [[_ ->]|(E1 & E2 & _)]); [reflexivity|]. rewrite E1, E2 in E. discriminate.
  - apply orb_false_iff in E. destruct E as [E1 E2]. split.
    + destruct (d && has_node (rc d m g) u && has_node (rc d m g) v) eqn:Dc; [|discriminate].
      apply andb_true_iff in Dc. destruct Dc as [Dc Hv]. apply andb_true_iff in Dc. destruct Dc as [-> Hu].
      intros [= <-]. exists x. split; [reflexivity|]. right. apply has_node_spec in Hu, Hv. auto 8.
    + intros (x' & [= <-] & [[[C|C] _]|(_ & _ & -> & Hu & Hv & ->)]); [congruence|congruence|].
      apply has_node_spec in Hu, Hv. rewrite Hu, Hv. reflexivity.
Qed.

Lemma rcg_node_ids d m g : wf g -> forall n,
  In n (node_ids (rc d m g)) <->
  exists a, label g n = Some a /\ (inc_end_g m g n \/ hh_end_g g n \/ (d = true /\ cc a = true)).
Proof.
  intros W n. split.
  - intros I. apply node_label_some in I. destruct I as (b & L). apply (rcg_nodes d m g W) in L.
    destruct L as (a & L & H). exists a. split; [exact L|]. tauto.
  - intros (a & L & H). apply has_node_spec. unfold has_node. rewrite (label_rcg d m g W), L.
    destruct (LGraph.mem n (inc_ends m g)) eqn:M1; [reflexivity|]. destruct (LGraph.mem n (hh_ends g)) eqn:M2; [reflexivity|].
    destruct H as [H|[H|[-> Cc]]].
    + apply (mem_inc_ends m g n W) in H. congruence.
    + apply (mem_hh_ends g n W) in H. congruence.
    + simpl. rewrite Cc. reflexivity.
Qed.

(** every atom of the centre carries [sel] or [selhh] of the atom's labels; distinct atom ids suffice *)
Definition LInv g ns : Prop := forall n b, In (n, b) ns -> exists a, label g n = Some a /\ (b = sel a \/ b = selhh a).

Lemma LInv_ensure (f : A -> A) g n ns : (forall a, f a = sel a \/ f a = selhh a) -> LInv g ns -> LInv g (ensure_g f g n ns).
Proof.
  intros Hf Hi. unfold ensure_g. destruct (has_key_g n ns); [exact Hi|]. destruct (label g n) as [a|] eqn:L; [|exact Hi].
  intros k b I. apply in_app_iff in I. destruct I as [I|[E|[]]]; [apply Hi; exact I|]. inversion E; subst. exists a. split; [exact L|apply Hf].
Qed.

Lemma LInv_ins_all (f : A -> A) g l : (forall a, f a = sel a \/ f a = selhh a) -> forall ns, LInv g ns -> LInv g (ins_all g f l ns).
Proof. intros Hf. induction l as [|n l IH]; intros ns Hi; [exact Hi|]. apply IH, LInv_ensure; assumption. Qed.

Lemma rcg_LInv_conn m g : LInv g (gnodes (rc false m g)).
Proof. rewrite gnodes_rcg. apply LInv_ins_all, LInv_ins_all; auto. intros ? ? []. Qed.

(** the charge pass inserts atoms of the graph with their own labels: for any sub-list [L] of the atom list *)
Lemma LInv_charge g : NoDup (node_ids g) -> forall L ns, (forall p, In p L -> In p (gnodes g)) -> LInv g ns ->
  LInv g (fold_left (step_charge_g sel cc) L ns).
Proof.
  intros Hnd. induction L as [|[k a] L IH]; intros ns Hin Hi; [exact Hi|]. cbn [fold_left]. apply IH; [intros p I; apply Hin; right; exact I|].
  unfold step_charge_g. simpl. destruct (cc a && negb (has_key_g k ns)); [|exact Hi].
  intros k' b I. apply in_app_iff in I. destruct I as [I|[E|[]]]; [apply Hi; exact I|]. inversion E; subst. exists a. split; [|auto].
  apply assoc_nodup_in; [exact Hnd|apply Hin; left; reflexivity].
Qed.

Lemma rcg_labels d m g : NoDup (node_ids g) ->
  forall n b, label (rc d m g) n = Some b -> exists a, label g n = Some a /\ (b = sel a \/ b = selhh a).
Proof.
  intros Hnd n b L. apply assoc_in in L. revert n b L. change (LInv g (gnodes (rc d m g))).
  destruct d; [|apply rcg_LInv_conn]. rewrite gnodes_rcg. apply (LInv_charge g Hnd); [auto|].
  rewrite <- (gnodes_rcg false). apply rcg_LInv_conn.
Qed.

Lemma rcg_nodes_in d m g n : NoDup (node_ids g) -> In n (node_ids (rc d m g)) -> In n (node_ids g).
Proof.
  intros Hnd I. apply node_label_some in I. destruct I as (b & Lb).
  destruct (rcg_labels d m g Hnd n b Lb) as (a & La & _). eapply label_some_node; eauto.
Qed.

(** ** what [disconnected] adds: the atoms whose charge changes; the centre becomes an induced subgraph *)
Theorem rcg_disconnected m g : wf g ->
  let R := rc true m g in
  (forall n, In n (node_ids R) <->
             In n (node_ids (rc false m g)) \/ (exists a, label g n = Some a /\ cc a = true)) /\
  (forall u v e, (exists y, adj R u v = Some y /\ fst y = e) <->
                 (exists x, adj g u v = Some x /\ fst x = e) /\ In u (node_ids R) /\ In v (node_ids R)).
Proof.
  intros W R. split.
  - intros n. unfold R. rewrite !(rcg_node_ids _ m g W). split.
    + intros (a & L & [H|[H|[_ H]]]); [left; exists a; tauto|left; exists a; tauto|right; exists a; tauto].
    + intros [(a & L & [H|[H|[C _]]])|(a & L & Cc)]; try discriminate; exists a; tauto.
  - intros u v e. split.
    + intros (y & A0 & <-). apply (rcg_edges true m g W) in A0.
      destruct A0 as (x & A0 & [[H ->]|(_ & _ & _ & Hu & Hv & ->)]); [|split; [exists x; auto|auto]].
      split; [exists x; auto|].
      destruct (adj_some_nodes g u v x W A0) as [Iu Iv].
      apply node_label_some in Iu, Iv. destruct Iu as (a & La). destruct Iv as (b & Lb).
      unfold R. rewrite !(rcg_node_ids true m g W). split; [exists a|exists b]; (split; [assumption|]).
      * destruct H as [H|H]; [left; exists v, x; auto|right; left; exists v, x; auto].
      * rewrite adj_sym in A0. destruct H as [H|H]; [left; exists u, x; auto|right; left; exists u, x].
        rewrite is_hh_g_sym. auto.
    + intros [(x & A0 & <-) [Hu Hv]]. unfold R in *. rewrite (adj_rcg true m g W), A0.
      apply has_node_spec in Hu, Hv. rewrite Hu, Hv. simpl.
      destruct (include_x m x || is_hh_g ish g u v); eexists; split; reflexivity.
Qed.

(** the default centre is a subgraph of every variant *)
Theorem rcg_default_sub d m g : wf g ->
  (forall n, In n (node_ids (rc false false g)) -> In n (node_ids (rc d m g))) /\
  (forall u v y, adj (rc false false g) u v = Some y -> adj (rc d m g) u v = Some y).
Proof.
  intros W. split.
  - intros n. rewrite !(rcg_node_ids _ _ g W). intros (a & L & [(v & x & A0 & H)|[H|[C _]]]); [| |discriminate]; exists a; split; auto.
    left. exists v, x. split; [exact A0|apply include_x_mono; exact H].
  - intros u v y A0. apply (rcg_edges false false g W) in A0. destruct A0 as (x & A0 & [[H ->]|(_ & _ & C & _)]); [|discriminate].
    rewrite (adj_rcg d m g W), A0.
    assert (include_x m x || is_hh_g ish g u v = true) as ->; [|reflexivity].
    apply orb_true_iff. destruct H as [H|H]; [left; apply include_x_mono; exact H|right; exact H].
Qed.

(** * the centre is a well-formed graph *)
Lemma rcg_wf d m g : wf g -> wf (rc d m g).
Proof.
  intros W. pose proof (wf_simple W) as Hs. apply wf_intro.
  - unfold node_ids. rewrite gnodes_rcg.
    assert (NoDup (map fst (conn_nodes m g))) as H2 by (apply ins_all_nodup, ins_all_nodup; constructor).
    destruct d; [apply fold_charge_g_nodup|]; exact H2.
  - (* a bond of the centre stems from a bond of the graph that one of the three passes selected *)
    intros a b y I. rewrite gedges_rcg in I. cbv zeta in I.
    assert (forall p o, In (a, b, y) (map (oute o) (filter p (gedges g))) -> exists x, In (a, b, x) (gedges g) /\ p (a, b, x) = true) as Hsrc.
    { intros p o J. apply in_map_iff in J. destruct J as ([[a' b'] x] & E & J). unfold oute in E. inversion E; subst.
      apply filter_In in J. exists x. exact J. }
    assert (forall x, In (a, b, x) (gedges g) -> (include_x m x = true \/ is_hh_g ish g a b = true) ->
                      In a (node_ids (rc d m g)) /\ In b (node_ids (rc d m g)) /\ a <> b) as Hin.
    { intros x J Hc. destruct (wf_edge_nodes W J) as (Ia & Ib & Hab). pose proof (wf_in_adj W J) as Ad.
      apply node_label_some in Ia, Ib. destruct Ia as (la & La), Ib as (lb & Lb).
      split; [|split; [|exact Hab]]; apply (rcg_node_ids d m g W); [exists la|exists lb]; (split; [assumption|]).
      - destruct Hc as [Hc|Hc]; [left|right; left]; exists b, x; auto.
      - rewrite adj_sym in Ad. rewrite is_hh_g_sym in Hc. destruct Hc as [Hc|Hc]; [left|right; left]; exists a, x; auto. }
    assert (In (a, b, y) (add_absent (map (oute out_edge) (filter (p_hh g) (gedges g))) (map (oute out_edge) (filter (p_inc m) (gedges g)))) ->
            In a (node_ids (rc d m g)) /\ In b (node_ids (rc d m g)) /\ a <> b) as H12.
    { intros J. apply in_add_absent in J. destruct J as [J|J]; apply Hsrc in J; destruct J as (x & J & P); apply (Hin x J); auto. }
    destruct d; [|apply H12; exact I].
    apply in_add_absent in I. destruct I as [I|I]; [apply H12; exact I|].
    apply Hsrc in I. destruct I as (x & J & P). unfold p_both in P. simpl in P. apply andb_true_iff in P. destruct P as [Pa Pb].
    destruct (wf_edge_nodes W J) as (_ & _ & Hab). split; [|split; [|exact Hab]]; apply has_node_spec; assumption.
  - rewrite gedges_rcg. cbv zeta.
    assert (simple (add_absent (map (oute out_edge) (filter (p_hh g) (gedges g))) (map (oute out_edge) (filter (p_inc m) (gedges g))))) as H2
        by (apply simple_add_absent, simple_oute, simple_filter, Hs).
    destruct d; [apply simple_add_absent|]; exact H2.
Qed.

Lemma adj_rcg_nodes d m g u v y : wf g -> adj (rc d m g) u v = Some y -> In u (node_ids (rc d m g)) /\ In v (node_ids (rc d m g)).
Proof.
  intros W. apply adj_some_nodes, rcg_wf, W.
Qed.

(** * idempotence, when the selected labels still decide "is a hydrogen" and "charge changes" *)
Section Idem.
Hypothesis sel_idem : forall a, sel (sel a) = sel a.
Hypothesis selhh_idem : forall a, selhh (selhh a) = selhh a.
Hypothesis ish_sel : forall a, ish (sel a) = ish a.
Hypothesis ish_selhh : forall a, ish (selhh a) = ish a.
Hypothesis cc_sel : forall a, cc (sel a) = cc a.
Hypothesis cc_selhh : forall a, cc a = true -> cc (selhh a) = true.
Variables (d m : bool) (g : lgraph A xedge).
Hypothesis W : wf g.
Local Notation R := (rc d m g).

Lemma is_h_R n : In n (node_ids R) -> is_h_g ish R n = is_h_g ish g n.
Proof.
  intros I. apply node_label_some in I. destruct I as (b & L). unfold is_h_g. rewrite L.
  apply (rcg_labels d m g (proj1 W)) in L. destruct L as (a & -> & [-> | ->]); auto.
Qed.

Lemma is_hh_R u v y : adj R u v = Some y -> is_hh_g ish R u v = is_hh_g ish g u v.
Proof. intros A0. destruct (adj_rcg_nodes d m g u v y W A0) as [Iu Iv]. unfold is_hh_g. rewrite (is_h_R u Iu), (is_h_R v Iv). reflexivity. Qed.

Lemma inc_end_R n : inc_end_g m R n <-> inc_end_g m g n.
Proof.
  split.
  - intros (v & y & A0 & P). apply (rcg_edges d m g W) in A0. destruct A0 as (x & A0 & [[_ ->]|(E1 & _ & _ & _ & _ & ->)]).
    + exists v, x. rewrite include_out_edge in P. auto.
    + rewrite include_out_edge_rec in P. unfold include_x in E1. apply orb_false_iff in E1. destruct E1. congruence.
  - intros (v & x & A0 & P). exists v, (out_edge x). split; [|rewrite include_out_edge; exact P].
    rewrite (adj_rcg d m g W), A0, P. reflexivity.
Qed.

Lemma hh_end_R n : hh_end_g R n <-> hh_end_g g n.
Proof.
  split.
  - intros (v & y & A0 & P). pose proof (is_hh_R n v y A0) as E. rewrite P in E.
    apply (rcg_edges d m g W) in A0. destruct A0 as (x & A0 & _). exists v, x. auto.
  - intros (v & x & A0 & P). exists v, (out_edge x).
    assert (adj R n v = Some (out_edge x)) as A'.
    { rewrite (adj_rcg d m g W), A0, P, orb_true_r. reflexivity. }
    split; [exact A'|]. rewrite (is_hh_R n v _ A'). exact P.
Qed.

Lemma ids_R_idem n : In n (node_ids R) -> In n (node_ids (rc d m R)).
Proof.
  intros I. pose proof (rcg_wf d m g W) as WR. apply (rcg_node_ids d m R WR).
  pose proof I as I0. apply node_label_some in I0. destruct I0 as (b & Lb). exists b. split; [exact Lb|].
  apply (rcg_node_ids d m g W) in I. destruct I as (a & La & [H|[H|[Hd Cc]]]).
  - left. apply inc_end_R. exact H.
  - right. left. apply hh_end_R. exact H.
  - right. right. split; [exact Hd|]. apply (rcg_labels d m g (proj1 W)) in Lb. destruct Lb as (a' & La' & [-> | ->]);
      assert (a' = a) as -> by congruence; [rewrite cc_sel; exact Cc|apply cc_selhh; exact Cc].
Qed.

Theorem rcg_idem : geq (rc d m R) R.
Proof.
  pose proof (rcg_wf d m g W) as WR. split.
  - intros n. rewrite (label_rcg d m R WR). destruct (label R n) as [b|] eqn:L; [|reflexivity].
    pose proof (mem_inc_ends m R n WR) as H1. pose proof (mem_hh_ends R n WR) as H2.
    pose proof (bool_false_iff _ _ H1) as N1. pose proof (bool_false_iff _ _ H2) as N2.
    rewrite inc_end_R in H1, N1. rewrite hh_end_R in H2, N2.
    apply (rcg_nodes d m g W) in L. destruct L as (a & La & [[Hi ->]|[(Hni & Hh & ->)|(Hni & Hnh & Hd & Cc & ->)]]).
    + rewrite (proj2 H1 Hi), sel_idem. reflexivity.
    + rewrite (proj2 N1 Hni), (proj2 H2 Hh), selhh_idem. reflexivity.
    + rewrite (proj2 N1 Hni), (proj2 N2 Hnh), cc_sel, Cc, Hd, sel_idem. reflexivity.
  - intros u v. rewrite (adj_rcg d m R WR). destruct (adj R u v) as [y|] eqn:A0; [|reflexivity].
    rewrite (is_hh_R u v y A0). destruct (adj_rcg_nodes d m g u v y W A0) as [Iu Iv].
    apply (rcg_edges d m g W) in A0. destruct A0 as (x & A0 & [[Hc ->]|(E1 & E2 & Hd & _ & _ & ->)]).
    + rewrite include_out_edge, out_edge_idem.
      assert (include_x m x || is_hh_g ish g u v = true) as -> by (apply orb_true_iff; exact Hc). reflexivity.
    + rewrite include_out_edge_rec, E2. unfold include_x in E1. apply orb_false_iff in E1. destruct E1 as [-> _]. simpl.
      apply ids_R_idem in Iu, Iv. apply has_node_spec in Iu, Iv. rewrite Iu, Iv, Hd. reflexivity.
Qed.
End Idem.

(** * the centre commutes with every injective renumbering *)
Section Equivariant.
Variable f : N -> N.
Hypothesis Hinj : forall a b, f a = f b -> a = b.

Definition mapn ns := map (fun p : N * A => (f (fst p), snd p)) ns.
Definition mape es := map (fun e : N * N * xedge => let '(a, b, x) := e in (f a, f b, x)) es.
Definition mapst (st : state_g A) : state_g A := (mapn (fst st), mape (snd st)).

Lemma has_key_g_equiv n ns : has_key_g (f n) (mapn ns) = has_key_g n ns.
Proof. unfold has_key_g, mapn. rewrite (assoc_map_key Hinj). reflexivity. Qed.

Lemma ensure_g_equiv h g n ns : ensure_g h (relabel f g) (f n) (mapn ns) = mapn (ensure_g h g n ns).
Proof.
  unfold ensure_g. rewrite has_key_g_equiv, (label_relabel Hinj).
  destruct (has_key_g n ns); [reflexivity|]. destruct (label g n); [|reflexivity]. unfold mapn. rewrite map_app. reflexivity.
Qed.

Lemma is_hh_g_equiv g u v : is_hh_g ish (relabel f g) (f u) (f v) = is_hh_g ish g u v.
Proof. unfold is_hh_g, is_h_g. rewrite !(label_relabel Hinj). reflexivity. Qed.

Lemma fold_changed_g_equiv m g L : forall st,
  fold_left (step_changed_g sel m (relabel f g)) (mape L) (mapst st) = mapst (fold_left (step_changed_g sel m g) L st).
Proof.
  induction L as [|[[u v] x] L IH]; intros st; [reflexivity|]. cbn [mape map fold_left]. fold (mape L). rewrite <- IH. f_equal.
  unfold step_changed_g. destruct (include_x m x); [|reflexivity]. unfold mapst. simpl.
  rewrite !ensure_g_equiv. unfold mape. rewrite map_app. reflexivity.
Qed.

Lemma fold_hh_g_equiv g L : forall st,
  fold_left (step_hh_g selhh ish (relabel f g)) (mape L) (mapst st) = mapst (fold_left (step_hh_g selhh ish g) L st).
Proof.
  induction L as [|[[u v] x] L IH]; intros st; [reflexivity|]. cbn [mape map fold_left]. fold (mape L). rewrite <- IH. f_equal.
  unfold step_hh_g. rewrite is_hh_g_equiv. destruct (is_hh_g ish g u v); [|reflexivity]. unfold mapst. simpl.
  rewrite !ensure_g_equiv. unfold mape at 1. rewrite (find_edge_relabel Hinj).
  destruct (find_edge u v (snd st)); [reflexivity|]. unfold mape. rewrite map_app. reflexivity.
Qed.

Lemma fold_charge_g_equiv L : forall ns,
  fold_left (step_charge_g sel cc) (mapn L) (mapn ns) = mapn (fold_left (step_charge_g sel cc) L ns).
Proof.
  induction L as [|[n a] L IH]; intros ns; [reflexivity|]. cbn [mapn map fold_left]. fold (mapn L). rewrite <- IH. f_equal.
  unfold step_charge_g. simpl. rewrite has_key_g_equiv.
  destruct (cc a && negb (has_key_g n ns)); [|reflexivity]. unfold mapn. rewrite map_app. reflexivity.
Qed.

Lemma fold_reconnect_g_equiv ns L : forall es,
  fold_left (step_reconnect_g (mapn ns)) (mape L) (mape es) = mape (fold_left (step_reconnect_g ns) L es).
Proof.
  induction L as [|[[u v] x] L IH]; intros es; [reflexivity|]. cbn [mape map fold_left]. fold (mape L). rewrite <- IH. f_equal.
  unfold step_reconnect_g. rewrite !has_key_g_equiv. unfold mape at 1. rewrite (find_edge_relabel Hinj).
  destruct (has_key_g u ns && has_key_g v ns && match find_edge u v es with Some _ => false | None => true end); [|reflexivity].
  unfold mape. rewrite map_app. reflexivity.
Qed.

Lemma passes12_equiv m g :
  fold_left (step_hh_g selhh ish (relabel f g)) (mape (gedges g))
            (fold_left (step_changed_g sel m (relabel f g)) (mape (gedges g)) ([], [])) =
  mapst (fold_left (step_hh_g selhh ish g) (gedges g) (fold_left (step_changed_g sel m g) (gedges g) ([], []))).
Proof.
  change (@nil (N * A), @nil (N * N * xedge)) with (mapst ([], [])) at 1.
  rewrite fold_changed_g_equiv, fold_hh_g_equiv. reflexivity.
Qed.

Theorem rcg_equivariant d m g : rc d m (relabel f g) = relabel f (rc d m g).
Proof.
  unfold get_rc_g. cbv zeta. change (gedges (relabel f g)) with (mape (gedges g)).
  change (gnodes (relabel f g)) with (mapn (gnodes g)). rewrite passes12_equiv. unfold mapst. cbn [fst snd].
  destruct d; [|reflexivity]. rewrite fold_charge_g_equiv, fold_reconnect_g_equiv. reflexivity.
Qed.
End Equivariant.
End Generic.

(** * a ball that holds the centre atoms has the same centre (without [disconnected]) *)
Section BallCentre.
Context {A : Type}.
Variables (sel selhh : A -> A) (ish cc : A -> bool).
Variable m : bool.
Variable G : lgraph A xedge.
Hypothesis W : wf G.
Variable S : list N.
Variable k : nat.
Local Notation rc := (get_rc_g sel selhh ish cc false m).
Hypothesis HC : forall n, In n (node_ids (rc G)) -> In n S.
Local Notation C := (ball_sub G S k).
Local Notation R := (rc G).
Local Notation ball := (knn_g G S k).

Lemma wf_ball : wf C. Proof. apply wf_induced. exact W. Qed.

Lemma centre_in_ball n : In n (node_ids R) -> LGraph.mem n ball = true.
Proof. intros I. apply mem_in_knn_g. exists n, O. repeat split; [apply HC; exact I|lia|constructor]. Qed.

Lemma label_ball n : LGraph.mem n ball = true -> label C n = label G n.
Proof. intros M. unfold ball_sub. rewrite label_induced, M. reflexivity. Qed.

Lemma is_hh_ball u v : LGraph.mem u ball = true -> LGraph.mem v ball = true -> is_hh_g ish C u v = is_hh_g ish G u v.
Proof. intros Mu Mv. unfold is_hh_g, is_h_g. rewrite (label_ball u Mu), (label_ball v Mv). reflexivity. Qed.

(** a bond that the centre keeps has both ends in the ball *)
Lemma kept_in_ball u v x : adj G u v = Some x -> include_x m x || is_hh_g ish G u v = true ->
  LGraph.mem u ball = true /\ LGraph.mem v ball = true.
Proof.
  intros Ad E. assert (adj R u v = Some (out_edge x)) as AR by (rewrite (adj_rcg sel selhh ish cc false m G W), Ad, E; reflexivity).
  destruct (adj_rcg_nodes sel selhh ish cc false m G u v _ W AR) as [Iu Iv]. split; apply centre_in_ball; assumption.
Qed.

Lemma adj_rc_ball u v : adj (rc C) u v = adj R u v.
Proof.
  rewrite (adj_rcg sel selhh ish cc false m C wf_ball), (adj_rcg sel selhh ish cc false m G W). unfold ball_sub at 1. rewrite (adj_induced _ _ _ W). simpl.
  destruct (LGraph.mem u ball) eqn:Mu; destruct (LGraph.mem v ball) eqn:Mv; simpl;
    try (rewrite (is_hh_ball u v Mu Mv); reflexivity).
  all: destruct (adj G u v) as [x|] eqn:Ad; [|reflexivity];
       destruct (include_x m x || is_hh_g ish G u v) eqn:E; [|reflexivity];
       destruct (kept_in_ball u v x Ad E); congruence.
Qed.

Lemma inc_end_ball n : inc_end_g m C n <-> inc_end_g m G n.
Proof.
  unfold inc_end_g. split.
  - intros (v & x & Ad & P). exists v, x. split; [|exact P]. unfold ball_sub in Ad. rewrite (adj_induced _ _ _ W) in Ad.
    destruct (LGraph.mem n ball && LGraph.mem v ball); [exact Ad|discriminate].
  - intros (v & x & Ad & P). exists v, x. split; [|exact P].
    destruct (kept_in_ball n v x Ad) as [Mn Mv]; [rewrite P; reflexivity|].
    unfold ball_sub. rewrite (adj_induced _ _ _ W), Mn, Mv. exact Ad.
Qed.

Lemma hh_end_ball n : hh_end_g ish C n <-> hh_end_g ish G n.
Proof.
  unfold hh_end_g. split.
  - intros (v & x & Ad & P). unfold ball_sub in Ad. rewrite (adj_induced _ _ _ W) in Ad.
    destruct (LGraph.mem n ball) eqn:Mn; destruct (LGraph.mem v ball) eqn:Mv; simpl in Ad; try discriminate.
    exists v, x. split; [exact Ad|]. rewrite <- (is_hh_ball n v Mn Mv). exact P.
  - intros (v & x & Ad & P). destruct (kept_in_ball n v x Ad) as [Mn Mv]; [rewrite P; apply orb_true_r|].
    exists v, x. split; [unfold ball_sub; rewrite (adj_induced _ _ _ W), Mn, Mv; exact Ad|]. rewrite (is_hh_ball n v Mn Mv). exact P.
Qed.

Theorem rcg_of_ball : geq (rc C) R.
Proof.
  split; [|exact adj_rc_ball]. intros n.
  rewrite (label_rcg sel selhh ish cc false m C wf_ball), (label_rcg sel selhh ish cc false m G W).
  assert (LGraph.mem n (inc_ends m C) = LGraph.mem n (inc_ends m G)) as E1.
  { apply Bool.eq_true_iff_eq. rewrite (mem_inc_ends m C n wf_ball), (mem_inc_ends m G n W). apply inc_end_ball. }
  assert (LGraph.mem n (hh_ends ish C) = LGraph.mem n (hh_ends ish G)) as E2.
  { apply Bool.eq_true_iff_eq. rewrite (mem_hh_ends ish C n wf_ball), (mem_hh_ends ish G n W). apply hh_end_ball. }
  rewrite E1, E2. unfold ball_sub at 1. rewrite label_induced.
  destruct (LGraph.mem n ball) eqn:Mn; [reflexivity|].
  destruct (label G n) as [a|] eqn:L; [|reflexivity]. simpl.
  (* an atom outside the ball is no centre atom *)
  assert (label R n = None) as LR.
  { destruct (label R n) as [b|] eqn:LR; [|reflexivity]. exfalso.
    assert (In n (node_ids R)) as Inn by (eapply label_some_node; eauto).
    pose proof (centre_in_ball n Inn). congruence. }
  rewrite (label_rcg sel selhh ish cc false m G W), L in LR. simpl in LR. symmetry. exact LR.
Qed.
End BallCentre.
