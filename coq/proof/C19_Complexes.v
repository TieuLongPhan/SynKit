(** C19 — the complex walk of model/C19_Model.v (complex_graph): the complex list is duplicate free and consists exactly
    of the reactant and product vectors of the reactions; the arcs join the index of each reaction's reactant complex to
    the index of its product complex.  Style: stdlib lists. *)
From Coq Require Import List NArith ZArith Bool Arith Lia Permutation.
From SK Require Import lib.Reach model.C17_Model model.C19_Model proof.C17_Proof.
Import ListNotations.
Local Open Scope nat_scope.

(* ------------------------------------------------------------------ vectors, index lookup *)

Lemma veqb_eq u : forall v, veqb u v = true <-> u = v.
Proof.
  induction u as [|x u IH]; intros [|y v]; simpl; split; try discriminate; auto.
  - intros H. apply andb_prop in H. destruct H as [H1 H2]. apply Z.eqb_eq in H1. apply IH in H2. congruence.
  - intros [= -> ->]. rewrite Z.eqb_refl. apply IH. reflexivity.
Qed.
Lemma veqb_refl u : veqb u u = true.
Proof. apply veqb_eq. reflexivity. Qed.

Lemma index_of_some v cs : forall k, index_of v cs = Some k -> nth_error cs k = Some v /\ k < length cs.
Proof.
  induction cs as [|c cs IH]; intros k H; simpl in H; [discriminate|].
  destruct (veqb c v) eqn:E.
  - inversion H; subst. apply veqb_eq in E. subst. simpl. split; auto. lia.
  - destruct (index_of v cs) as [j|]; [|discriminate]. inversion H; subst. destruct (IH j eq_refl). simpl. split; auto. lia.
Qed.
Lemma index_of_nth v cs k : index_of v cs = Some k -> nth k cs [] = v.
Proof. intros H. apply index_of_some in H. destruct H as [H _]. apply nth_error_nth with (d := []) in H. exact H. Qed.
Lemma index_of_none v cs : index_of v cs = None <-> ~ In v cs.
Proof.
  induction cs as [|c cs IH]; simpl; [tauto|].
  destruct (veqb c v) eqn:E.
  - apply veqb_eq in E. split; [discriminate|]. intros H. exfalso. apply H. auto.
  - destruct (index_of v cs) as [j|]; simpl.
    + split; [discriminate|]. intros H. exfalso. apply H. right.
      destruct (in_dec (list_eq_dec Z.eq_dec) v cs) as [I|N]; auto. apply IH in N. discriminate.
    + split; auto. intros _ [->|I]; [rewrite veqb_refl in E; discriminate|]. destruct IH as [IH _]. apply IH; auto.
Qed.
Lemma index_of_in v cs : In v cs -> exists k, index_of v cs = Some k.
Proof.
  intros I. destruct (index_of v cs) as [k|] eqn:E; [eauto|]. apply index_of_none in E. contradiction.
Qed.
Lemma index_of_app_l v cs cs' k : index_of v cs = Some k -> index_of v (cs ++ cs') = Some k.
Proof.
  revert k. induction cs as [|c cs IH]; intros k H; simpl in *; [discriminate|].
  destruct (veqb c v); auto. destruct (index_of v cs) as [j|]; [|discriminate]. rewrite (IH j eq_refl). exact H.
Qed.
Lemma index_of_app_in v cs cs' : In v cs -> index_of v (cs ++ cs') = index_of v cs.
Proof. intros I. destruct (index_of_in v cs I) as (k & E). rewrite E. apply index_of_app_l. exact E. Qed.
Lemma index_of_app_new v cs : index_of v cs = None -> index_of v (cs ++ [v]) = Some (length cs).
Proof.
  induction cs as [|c cs IH]; intros H; simpl in *; [rewrite veqb_refl; reflexivity|].
  destruct (veqb c v); [discriminate|]. destruct (index_of v cs); [discriminate|]. rewrite IH; auto.
Qed.
(** in a duplicate-free list the index determines the element and conversely *)
Lemma index_of_nodup cs : NoDup cs -> forall k v, nth_error cs k = Some v -> index_of v cs = Some k.
Proof.
  induction 1 as [|c cs Hn ND IH]; intros k v H; [destruct k; discriminate|].
  destruct k as [|k]; simpl in *.
  - inversion H; subst. rewrite veqb_refl. reflexivity.
  - destruct (veqb c v) eqn:E.
    + apply veqb_eq in E. subst. exfalso. apply Hn. eapply nth_error_In; eauto.
    + rewrite (IH k v H). reflexivity.
Qed.

Lemma NoDup_app_intro {A} (l1 l2 : list A) : NoDup l1 -> NoDup l2 -> (forall y, In y l1 -> In y l2 -> False) -> NoDup (l1 ++ l2).
Proof.
  induction l1 as [|a l1 IH]; intros N1 N2 D; simpl; auto. inversion N1; subst. constructor.
  - rewrite in_app_iff. intros [I|I]; auto. apply (D a); simpl; auto.
  - apply IH; auto. intros y I1 I2. apply (D y); simpl; auto.
Qed.
Lemma NoDup_app_snoc {A} (l : list A) x : NoDup l -> ~ In x l -> NoDup (l ++ [x]).
Proof.
  intros ND N. apply NoDup_app_intro; [exact ND|repeat constructor; intros []|]. intros y I [<-|[]]. exact (N I).
Qed.

Lemma arc_mem_spec a l : arc_mem a l = true <-> In a l.
Proof.
  unfold arc_mem. rewrite existsb_exists. split.
  - intros (b & I & E). apply andb_prop in E. destruct E as [E1 E2]. apply Nat.eqb_eq in E1, E2.
    destruct a, b; simpl in *; subst; auto.
  - intros I. exists a. rewrite !Nat.eqb_refl. auto.
Qed.

(* ------------------------------------------------------------------ the walk *)

Section WalkInv.
Variable vec : role -> rxn -> list Z.

Lemma add_complex_spec cs v : NoDup cs ->
  let '(cs', k) := add_complex cs v in
  NoDup cs' /\ (exists ext, cs' = cs ++ ext) /\ (forall w, In w cs' <-> In w cs \/ w = v) /\ index_of v cs' = Some k.
Proof.
  intros ND. unfold add_complex. destruct (index_of v cs) as [k|] eqn:E.
  - split; auto. split; [exists []; rewrite app_nil_r; reflexivity|]. split; auto.
    intros w. split; auto. intros [I| ->]; auto. apply index_of_some in E. destruct E as [E _]. eapply nth_error_In; eauto.
  - split; [|split; [eauto|split]].
    + apply NoDup_app_snoc. { exact ND. } apply index_of_none; exact E.
    + intros w. rewrite in_app_iff. simpl. split; [intros [I|[<-|[]]]|intros [I| ->]]; auto.
    + apply index_of_app_new; exact E.
Qed.

(** invariant of the walk after the reactions [done] *)
Definition walk_inv (done : list rxn) (st : list (list Z) * list (nat * nat)) : Prop :=
  let '(cs, arcs) := st in
  NoDup cs /\
  (forall v, In v cs <-> exists e, In e done /\ (v = vec Reactant e \/ v = vec Product e)) /\
  NoDup arcs /\
  (forall u v, In (u, v) arcs <->
     exists e, In e done /\ index_of (vec Reactant e) cs = Some u /\ index_of (vec Product e) cs = Some v).

Lemma cstep_inv done st e : walk_inv done st -> walk_inv (done ++ [e]) (cstep vec st e).
Proof.
  destruct st as [cs arcs]. intros (ND & Hin & NDa & Harc). unfold cstep.
  pose proof (add_complex_spec cs (vec Reactant e) ND) as A1.
  destruct (add_complex cs (vec Reactant e)) as [cs1 u]. destruct A1 as (ND1 & (x1 & E1) & In1 & Iu).
  pose proof (add_complex_spec cs1 (vec Product e) ND1) as A2.
  destruct (add_complex cs1 (vec Product e)) as [cs2 v]. destruct A2 as (ND2 & (x2 & E2) & In2 & Iv).
  assert (Iu2 : index_of (vec Reactant e) cs2 = Some u) by (subst cs2; apply index_of_app_l; exact Iu).
  assert (stable : forall e' ro, In e' done -> index_of (vec ro e') cs2 = index_of (vec ro e') cs).
  { intros e' ro I. subst cs2 cs1. rewrite <- app_assoc. apply index_of_app_in, Hin. exists e'. destruct ro; auto. }
  assert (arcs_spec : forall a b, In (a, b) arcs <->
             exists e', In e' done /\ index_of (vec Reactant e') cs2 = Some a /\ index_of (vec Product e') cs2 = Some b).
  { intros a b. rewrite Harc. split; intros (e' & I & H); exists e'; [rewrite !(stable e' _ I)|rewrite !(stable e' _ I) in H]; auto. }
  split; [exact ND2|]. split; [|split].
  - intros w. rewrite In2, In1, Hin. split.
    + intros [[(e' & I & H)| ->]| ->].
      * exists e'. split; auto. apply in_or_app; auto.
      * exists e. split; auto. apply in_or_app; simpl; auto.
      * exists e. split; auto. apply in_or_app; simpl; auto.
    + intros (e' & I & H). apply in_app_or in I. destruct I as [I|[<-|[]]].
      * left. left. eauto.
      * destruct H as [->| ->]; auto.
  - destruct (arc_mem (u, v) arcs) eqn:M; auto.
    apply NoDup_app_snoc; auto. intros I. apply arc_mem_spec in I. congruence.
  - intros a b.
    assert (new_or_old : In (a, b) (if arc_mem (u, v) arcs then arcs else arcs ++ [(u, v)]) <-> In (a, b) arcs \/ (a, b) = (u, v)).
    { destruct (arc_mem (u, v) arcs) eqn:M.
      - split; auto. intros [I|E]; auto. rewrite E. apply arc_mem_spec; exact M.
      - rewrite in_app_iff. simpl. split; [intros [I|[<-|[]]]|intros [I|E]]; auto. }
    rewrite new_or_old, arcs_spec. split.
    + intros [(e' & I & H)|E].
      * exists e'. split; auto. apply in_or_app; auto.
      * inversion E; subst. exists e. split; [apply in_or_app; simpl; auto|]. auto.
    + intros (e' & I & Ha & Hb). apply in_app_or in I. destruct I as [I|[<-|[]]]; [left; eauto|].
      right. congruence.
Qed.

Lemma walk_fold es : forall done st, walk_inv done st -> walk_inv (done ++ es) (fold_left (cstep vec) es st).
Proof.
  induction es as [|e es IH]; intros done st H; simpl; [rewrite app_nil_r; exact H|].
  replace (done ++ e :: es) with ((done ++ [e]) ++ es) by (rewrite <- app_assoc; reflexivity).
  apply IH. apply cstep_inv. exact H.
Qed.

Lemma walk_correct es : walk_inv es (fold_left (cstep vec) es ([], [])).
Proof.
  apply (walk_fold es [] ([], [])). split; [constructor|]. split; [|split; [constructor|]].
  - intros v. split; [intros []|]. intros (e & [] & _).
  - intros u v. split; [intros []|]. intros (e & [] & _).
Qed.
End WalkInv.

(* ------------------------------------------------------------------ the model's complex graph *)

(** the multiset of a side as a vector over the species order; [amount s sd] (proof/C17_Proof.v) is the coefficient of s *)
Definition side_vec (net : list rxn) (iso : list str) (sd : side) : list Z :=
  map (fun s => amount s sd) (species_order net iso).
Definition side_of (ro : role) (e : rxn) : side := match ro with Reactant => rlhs e | Product => rrhs e end.

Lemma cvec_length ro net iso e : length (cvec ro net iso e) = length (species_order net iso).
Proof. unfold cvec. apply map_length. Qed.
Lemma cvec_nth ro net iso e i : i < length (species_order net iso) ->
  nth i (cvec ro net iso e) 0%Z = entry ro (bip_arcs net) (nth i (species_order net iso) []) (rid e).
Proof.
  intros H. unfold cvec. apply nth_error_nth.
  apply (map_nth_error (fun s => entry ro (bip_arcs net) s (rid e))). apply nth_error_nth'. exact H.
Qed.

Lemma cvec_side net iso ro e : NoDup (map rid net) -> In e net -> cvec ro net iso e = side_vec net iso (side_of ro e).
Proof.
  intros ND I. unfold cvec, side_vec. apply map_ext. intros s. rewrite (entry_bip ro net s e ND I). destruct ro; reflexivity.
Qed.

Lemma amount_notin s sd : ~ In s (map fst sd) -> amount s sd = 0%Z.
Proof.
  unfold amount. induction sd as [|p sd IH]; simpl; auto. intros H.
  rewrite streqb_neq by (intros E; apply H; auto). apply IH. intros I. apply H. auto.
Qed.

Lemma side_species_in net iso ro e s : In e net -> In s (map fst (side_of ro e)) -> In s (species_order net iso).
Proof.
  intros I Hs. rewrite species_order_eq. apply species_set_in. left. exists e. split; auto.
  unfold rxn_species. apply in_or_app. destruct ro; auto.
Qed.

(** two sides give the same vector iff they are the same multiset (same coefficient for EVERY species) *)
Lemma side_vec_ext net iso ro1 e1 ro2 e2 : In e1 net -> In e2 net ->
  (side_vec net iso (side_of ro1 e1) = side_vec net iso (side_of ro2 e2) <->
   forall s, amount s (side_of ro1 e1) = amount s (side_of ro2 e2)).
Proof.
  intros I1 I2. unfold side_vec. split.
  - intros H s. destruct (in_dec (list_eq_dec N.eq_dec) s (species_order net iso)) as [I|NI].
    + apply (proj1 (@map_ext_in_iff _ _ _ _ _) H). exact I.
    + rewrite (amount_notin s (side_of ro1 e1)), (amount_notin s (side_of ro2 e2)); auto;
        intros Hs; apply NI; [exact (side_species_in net iso ro2 e2 s I2 Hs) | exact (side_species_in net iso ro1 e1 s I1 Hs)].
  - intros H. apply map_ext. exact H.
Qed.

Lemma complex_graph_inv net iso :
  walk_inv (fun ro e => cvec ro net iso e) (edges_sorted net) (fst (complex_graph net iso), snd (complex_graph net iso)).
Proof. rewrite <- surjective_pairing. apply walk_correct. Qed.

Lemma in_edges_sorted net e : In e (edges_sorted net) <-> In e net.
Proof.
  split; apply Permutation_in; [apply edges_sorted_perm | apply Permutation_sym, edges_sorted_perm].
Qed.

Theorem complexes_spec net iso : NoDup (map rid net) ->
  let cs := fst (complex_graph net iso) in
  NoDup cs /\
  (forall v, In v cs <-> exists e, In e net /\ (v = side_vec net iso (rlhs e) \/ v = side_vec net iso (rrhs e))) /\
  (forall ro1 e1 ro2 e2, In e1 net -> In e2 net ->
     (side_vec net iso (side_of ro1 e1) = side_vec net iso (side_of ro2 e2) <->
      forall s, amount s (side_of ro1 e1) = amount s (side_of ro2 e2))).
Proof.
  intros ND. cbv zeta. destruct (complex_graph_inv net iso) as (NDc & Hin & _ & _). split; [exact NDc|]. split; [|intros; apply side_vec_ext; assumption].
  intros v. rewrite Hin. split; intros (e & I & H).
  - apply (proj1 (in_edges_sorted _ _)) in I. exists e. split; auto.
    rewrite (cvec_side net iso Reactant e ND I), (cvec_side net iso Product e ND I) in H. exact H.
  - exists e. split; [apply (proj2 (in_edges_sorted _ _)); exact I|].
    rewrite (cvec_side net iso Reactant e ND I), (cvec_side net iso Product e ND I). exact H.
Qed.

(** arcs of the complex graph: u -> v iff some reaction has reactant complex number u and product complex number v *)
Theorem complex_arcs_spec net iso : NoDup (map rid net) ->
  let cs := fst (complex_graph net iso) in
  let arcs := snd (complex_graph net iso) in
  NoDup arcs /\
  forall u v, In (u, v) arcs <->
    exists e, In e net /\ nth_error cs u = Some (side_vec net iso (rlhs e)) /\ nth_error cs v = Some (side_vec net iso (rrhs e)).
Proof.
  intros ND. cbv zeta. destruct (complex_graph_inv net iso) as (NDc & _ & NDa & Harc). split; [exact NDa|]. intros u v. rewrite Harc.
  split; intros (e & I & Hu & Hv).
  - apply (proj1 (in_edges_sorted _ _)) in I. exists e. split; auto.
    rewrite (cvec_side net iso Reactant e ND I) in Hu. rewrite (cvec_side net iso Product e ND I) in Hv.
    split; [apply (index_of_some _ _ _ Hu) | apply (index_of_some _ _ _ Hv)].
  - exists e. split; [apply (proj2 (in_edges_sorted _ _)); exact I|].
    rewrite (cvec_side net iso Reactant e ND I), (cvec_side net iso Product e ND I).
    split; apply index_of_nodup; assumption.
Qed.

(** facts used by the linkage / rank proofs (no premise on the ids) *)
Definition arcs_ok (arcs : list (nat * nat)) (k : nat) : Prop := forall a, In a arcs -> fst a < k /\ snd a < k.

Lemma complex_graph_arcs_ok net iso : arcs_ok (snd (complex_graph net iso)) (length (fst (complex_graph net iso))).
Proof.
  destruct (complex_graph_inv net iso) as (_ & _ & _ & Harc). intros [u v] I. apply Harc in I. destruct I as (e & _ & Hu & Hv).
  simpl. split; [apply (index_of_some _ _ _ Hu) | apply (index_of_some _ _ _ Hv)].
Qed.

(** every reaction has its two complexes in the list and its arc in the graph *)
Lemma complex_graph_reaction_arc net iso e : In e net ->
  exists u v, index_of (cvec Reactant net iso e) (fst (complex_graph net iso)) = Some u /\
              index_of (cvec Product net iso e) (fst (complex_graph net iso)) = Some v /\
              In (u, v) (snd (complex_graph net iso)).
Proof.
  intros I. destruct (complex_graph_inv net iso) as (_ & Hin & _ & Harc). apply (proj2 (in_edges_sorted _ _)) in I.
  destruct (index_of_in (cvec Reactant net iso e) (fst (complex_graph net iso))) as (u & Hu). { apply Hin. eauto. }
  destruct (index_of_in (cvec Product net iso e) (fst (complex_graph net iso))) as (v & Hv). { apply Hin. eauto. }
  exists u, v. split; auto. split; auto. apply Harc. eauto.
Qed.

(* ------------------------------------------------------------------ non-vacuity: A + B <-> C, C -> 2 A *)
Definition sA : str := [65%N]. Definition sB : str := [66%N]. Definition sC : str := [67%N].
Definition ex_net : list rxn :=
  [ ([49%N], [114%N], [(sA, 1%Z); (sB, 1%Z)], [(sC, 1%Z)]);
    ([50%N], [114%N], [(sC, 1%Z)], [(sA, 1%Z); (sB, 1%Z)]);
    ([51%N], [114%N], [(sC, 1%Z)], [(sA, 2%Z)]) ].
Definition ex_cs := fst (complex_graph ex_net []).
Definition ex_arcs := snd (complex_graph ex_net []).
Example ex_complexes : ex_cs = [[1;1;0]; [0;0;1]; [2;0;0]]%Z /\ ex_arcs = [(0,1); (1,0); (1,2)] /\ NoDup (map rid ex_net).
Proof.
  split; [vm_compute; reflexivity|]. split; [vm_compute; reflexivity|].
  repeat constructor; simpl; intuition discriminate.
Qed.

(** the walk over the out-arcs only ([complex_graph_outarcs_only]; G.edges(r) on a DiGraph = product arcs only, /repo before 0eb35ff) on A + B -> C, C -> A + B: every reactant
    complex collapses to the zero complex: 3 complexes instead of 2, and the zero vector is listed although no side is empty *)
Definition ex_rev : list rxn := firstn 2 ex_net.
Lemma outarcs_only_refuted :
  exists net, NoDup (map rid net) /\
    fst (complex_graph net []) = [[1;1;0]; [0;0;1]]%Z /\
    fst (complex_graph_outarcs_only net []) = [[0;0;0]; [0;0;1]; [1;1;0]]%Z /\
    ~ (forall v, In v (fst (complex_graph_outarcs_only net [])) ->
         exists e, In e net /\ (v = side_vec net [] (rlhs e) \/ v = side_vec net [] (rrhs e))).
Proof.
  exists ex_rev. split; [repeat constructor; simpl; intuition discriminate|].
  split; [vm_compute; reflexivity|]. split; [vm_compute; reflexivity|].
  intros H. destruct (H [0;0;0]%Z) as (e & I & E); [vm_compute; auto|].
  destruct I as [<-|[<-|[]]]; vm_compute in E; destruct E as [E|E]; discriminate.
Qed.

(** the conversion of an undirected input through nx.DiGraph(U) ([cvec_undirected_doubled]; /repo before a58b70a): every coefficient is counted twice *)
Lemma cvec_undirected_doubled_eq ro net iso e :
  cvec_undirected_doubled ro net iso e = map (fun z => (2 * z)%Z) (cvec ro net iso e).
Proof.
  unfold cvec_undirected_doubled, cvec. rewrite map_map. apply map_ext. intros s. rewrite entry_app. lia.
Qed.

Lemma undirected_input_refuted :
  exists net, NoDup (map rid net) /\
    fst (complex_graph net []) = [[1;1;0]; [0;0;1]]%Z /\
    fst (complex_graph_undirected_doubled net []) = [[2;2;0]; [0;0;2]]%Z /\
    ~ (forall v, In v (fst (complex_graph_undirected_doubled net [])) ->
         exists e, In e net /\ (v = side_vec net [] (rlhs e) \/ v = side_vec net [] (rrhs e))).
Proof.
  exists ex_rev. split; [repeat constructor; simpl; intuition discriminate|].
  split; [vm_compute; reflexivity|]. split; [vm_compute; reflexivity|].
  intros H. destruct (H [2;2;0]%Z) as (e & I & E); [vm_compute; auto|].
  destruct I as [<-|[<-|[]]]; vm_compute in E; destruct E as [E|E]; discriminate.
Qed.
