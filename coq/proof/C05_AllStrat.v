(** C05 — COMPONENT and BACKTRACK under re-ordering.  The component-aware result set is characterised by the
    C06 specification (monomorphisms that separate pattern components, or all, or none, depending on the NUMBERS of
    components); the number of components, connectivity and the monomorphism property only depend on the graphs as
    functions, hence the raw match SETS of all three strategies are invariant under any re-ordering, and with
    proof/C05_Result.v so are the sets of glued ITS graphs. Stdlib lists. *)
From Coq Require Import List ZArith Lia Permutation Relations.
From SK Require Import lib.LGraph.
From SK Require Import lib.C06_Spec proof.C06_All proof.C06_Comp proof.C06_Comps proof.C06_CompSem proof.C06_Main.
From SK Require Import model.C03_Model model.C05_Model proof.C05_Proof proof.C05_Pipe proof.C05_Comp proof.C05_Order proof.C05_Sub proof.C05_Cap proof.C05_Set proof.C05_Result.
Import ListNotations.
Local Open Scope nat_scope.

Section WithThr.
Context {TH : Thr}.


(** counting through a relation that is total and injective *)
Lemma len_le_rel {X Y} (R : X -> Y -> Prop) (l : list X) : forall (l' : list Y), NoDup l ->
  (forall x, In x l -> exists y, In y l' /\ R x y) ->
  (forall x1 x2 y, In x1 l -> In x2 l -> R x1 y -> R x2 y -> x1 = x2) ->
  length l <= length l'.
Proof.
  induction l as [|x l IH]; intros l' Hnd Htot Hinj; simpl; [lia|].
  inversion Hnd as [|? ? Hx Hl]; subst.
  destruct (Htot x (or_introl eq_refl)) as (y & Iy & Rxy).
  destruct (in_split y l' Iy) as (l1 & l2 & ->).
  rewrite app_length. simpl. rewrite Nat.add_succ_r, <- app_length. apply le_n_S. apply IH.
  - exact Hl.
  - intros x2 I2. destruct (Htot x2 (or_intror I2)) as (y2 & Iy2 & R2). exists y2. split; [|exact R2].
    apply in_app_or in Iy2. apply in_or_app. destruct Iy2 as [I|[E|I]]; [left; exact I | | right; exact I].
    subst y2. exfalso. apply Hx. rewrite (Hinj x x2 y (or_introl eq_refl) (or_intror I2) Rxy R2). exact I2.
  - intros x1 x2 y' I1 I2. apply Hinj; right; assumption.
Qed.

Section SameConn.
  Variables g g' : C06_Model.graph.
  Hypothesis Hw : gwf g.
  Hypothesis Hw' : gwf g'.
  Hypothesis Hadj : forall u v, LGraph.adj g' u v = LGraph.adj g u v.
  Hypothesis Hids : forall u, In u (node_ids g) <-> In u (node_ids g').

  Lemma gconn_same x y : gconn g x y -> gconn g' x y.
  Proof.
    induction 1 as [x y H | x | x y z _ IH1 _ IH2].
    - apply rt_step. unfold adjacent in *. rewrite Hadj. exact H.
    - apply rt_refl.
    - eapply rt_trans; eassumption.
  Qed.
End SameConn.

Lemma comps_len_le (g g' : C06_Model.graph) : gwf g -> gwf g' ->
  (forall u v, LGraph.adj g' u v = LGraph.adj g u v) -> (forall u, In u (node_ids g) <-> In u (node_ids g')) ->
  length (C06_Model.comps g) <= length (C06_Model.comps g').
Proof.
  intros Hw Hw' Hadj Hids.
  apply (len_le_rel (fun c c' : list N => In c' (C06_Model.comps g') /\ exists x, In x c /\ In x c')).
  - apply comps_NoDup. exact Hw.
  - intros c Ic. destruct (comps_class g Hw c Ic) as (Hne & _ & Hincl & _).
    destruct c as [|x c]; [congruence|].
    destruct (comps_cover g' Hw' x) as (c' & Ic' & Ix'); [apply Hids; apply Hincl; left; reflexivity|].
    exists c'. split; [exact Ic'|]. split; [exact Ic'|]. exists x. split; [left; reflexivity | exact Ix'].
  - intros c1 c2 c' I1 I2 (Ic' & x1 & X1 & X1') (_ & x2 & X2 & X2').
    destruct (comps_class g Hw c1 I1) as (_ & _ & _ & Hcl1).
    destruct (comps_class g' Hw' c' Ic') as (_ & _ & _ & Hcl').
    assert (Hc' : gconn g' x1 x2) by (apply (Hcl' x1 x2 X1'); exact X2').
    assert (Hc : gconn g x1 x2).
    { apply (gconn_same g' g); [intros; symmetry; apply Hadj | exact Hc']. }
    assert (X2in1 : In x2 c1) by (apply (Hcl1 x1 x2 X1); exact Hc).
    exact (comps_disjoint_val g Hw c1 c2 x2 I1 I2 X2in1 X2).
Qed.

Lemma comps_len_same (g g' : C06_Model.graph) : gwf g -> gwf g' ->
  (forall u v, LGraph.adj g' u v = LGraph.adj g u v) -> (forall u, In u (node_ids g) <-> In u (node_ids g')) ->
  length (C06_Model.comps g) = length (C06_Model.comps g').
Proof.
  intros Hw Hw' Hadj Hids. apply Nat.le_antisymm.
  - apply comps_len_le; assumption.
  - apply comps_len_le; [assumption | assumption | intros; symmetry; apply Hadj | intros; symmetry; apply Hids].
Qed.

(** ** the component-aware result set under re-ordering *)
Section CompOrder.
  Variables (host host' : hostg) (pat pat' : molg).
  Hypothesis HS : same_graph host host'.
  Hypothesis PS : same_graph pat pat'.
  Let H := host_c06 host.
  Let P := pat_c06 pat.
  Let H' := host_c06 host'.
  Let P' := pat_c06 pat'.
  Hypothesis Hw : gwf H.
  Hypothesis Pw : gwf P.
  Hypothesis Hw' : gwf H'.
  Hypothesis Pw' : gwf P'.

  Lemma H_adj u v : LGraph.adj H' u v = LGraph.adj H u v.
  Proof. unfold H, H'. rewrite !adj_host_c06. destruct HS as (_ & E & _). rewrite E. reflexivity. Qed.
  Lemma P_adj u v : LGraph.adj P' u v = LGraph.adj P u v.
  Proof. unfold P, P'. rewrite !adj_pat_c06. destruct PS as (_ & E & _). rewrite E. reflexivity. Qed.
  Lemma H_ids u : In u (node_ids H) <-> In u (node_ids H').
  Proof. unfold H, H'. rewrite !node_ids_host_c06. destruct HS as (_ & _ & E & _). apply E. Qed.
  Lemma P_ids u : In u (node_ids P) <-> In u (node_ids P').
  Proof. unfold P, P'. rewrite !node_ids_pat_c06. destruct PS as (_ & _ & E & _). apply E. Qed.

  Lemma H_comps : length (C06_Model.comps H') = length (C06_Model.comps H).
  Proof. symmetry. apply comps_len_same; [exact Hw | exact Hw' | exact H_adj | exact H_ids]. Qed.
  Lemma P_comps : length (C06_Model.comps P') = length (C06_Model.comps P).
  Proof. symmetry. apply comps_len_same; [exact Pw | exact Pw' | exact P_adj | exact P_ids]. Qed.

  Lemma separating_same m : separating H P m -> separating H' P' m.
  Proof.
    intros Hsep p h p' h' I I' Hc.
    apply (gconn_same P P' P_adj). apply (Hsep p h p' h' I I').
    apply (gconn_same H' H); [intros; symmetry; apply H_adj | exact Hc].
  Qed.

  Lemma comp_unl_any_order m :
    In m (comp_unl (C06_Model.monos_on H P) true H P) ->
    exists m', In m' (comp_unl (C06_Model.monos_on H' P') true H' P') /\ Permutation m m'.
  Proof.
    pose proof (comp_unl_spec (C06_Model.monos_on H P) H P Hw Pw (monos_on_oracle_ok H P Hw Pw) true) as S.
    pose proof (comp_unl_spec (C06_Model.monos_on H' P') H' P' Hw' Pw' (monos_on_oracle_ok H' P' Hw' Pw') true) as S'.
    cbv zeta in S, S'. rewrite H_comps, P_comps in S'.
    intros Hin.
    destruct ((0 <? length (C06_Model.comps P)) && (length (C06_Model.comps P) <? length (C06_Model.comps H)) && true)%bool.
    - rewrite S in Hin. destruct Hin.
    - destruct (length (C06_Model.comps H) <? length (C06_Model.comps P)).
      + apply (proj2 S'). apply (is_mono_same host host' pat pat' m HS PS). apply (proj1 S). exact Hin.
      + destruct (proj1 S m Hin) as [Hm Hsep].
        apply (proj2 S'); [apply (is_mono_same host host' pat pat' m HS PS); exact Hm | apply separating_same; exact Hsep].
  Qed.
End CompOrder.

(** what is asked of one writing for the component-aware / fallback strategies: [side_ok] and the component-aware
    search below the threshold *)
Definition side_ok_c (host : hostg) (p : prepared) : Prop :=
  side_ok host p /\
  (comp_bound (C06_Model.monos_on (host_c06 host) (pat_c06 (p_pat p))) true (host_c06 host) (pat_c06 (p_pat p)) <= thr_val)%N.

Lemma matches_comp_unl host pat :
  (comp_bound (C06_Model.monos_on (host_c06 host) (pat_c06 pat)) true (host_c06 host) (pat_c06 pat) <= thr_val)%N ->
  matches 1%N host pat = comp_unl (C06_Model.monos_on (host_c06 host) (pat_c06 pat)) true (host_c06 host) (pat_c06 pat).
Proof.
  intros Hb. rewrite matches_monos_on. change (cfg_of 1%N) with (C06_Model.Cfg 1 0 thr_val true false).
  apply find_comp_unlimited. exact Hb.
Qed.

Lemma matches_bt_unl host pat :
  (comp_bound (C06_Model.monos_on (host_c06 host) (pat_c06 pat)) true (host_c06 host) (pat_c06 pat) <= thr_val)%N ->
  (C06_Model.lenN (C06_Model.monos_on (host_c06 host) (pat_c06 pat) (node_ids (host_c06 host)) (node_ids (pat_c06 pat))) <= thr_val)%N ->
  matches 2%N host pat = bt_unl_result (C06_Model.monos_on (host_c06 host) (pat_c06 pat)) true (host_c06 host) (pat_c06 pat).
Proof.
  intros Hb Hl. rewrite matches_monos_on. change (cfg_of 2%N) with (C06_Model.Cfg 2 0 thr_val true false).
  apply find_bt_unlimited; assumption.
Qed.

Lemma matches_all_unl host pat :
  (C06_Model.lenN (C06_Model.monos_on (host_c06 host) (pat_c06 pat) (node_ids (host_c06 host)) (node_ids (pat_c06 pat))) <= thr_val)%N ->
  matches 0%N host pat = C06_Model.monos_on (host_c06 host) (pat_c06 pat) (node_ids (host_c06 host)) (node_ids (pat_c06 pat)).
Proof.
  intros Hl. rewrite matches_monos_on. change (cfg_of 0%N) with (C06_Model.Cfg 0 0 thr_val true false).
  apply find_all_unlimited. exact Hl.
Qed.

Definition is_strat (s : N) : Prop := s = 0%N \/ s = 1%N \/ s = 2%N.

(** every raw match of every strategy is a monomorphism: a search answers with its limit-free result or with nothing *)
Lemma raw_is_mono_any strat host p k : is_strat strat -> side_ok host p ->
  In k (raw_of strat host p) -> is_mono (host_c06 host) (pat_c06 (p_pat p)) k.
Proof.
  intros Hst S Hin. unfold raw_of in Hin. destruct Hst as [-> | [-> | ->]].
  - exact (raw_is_mono host p k S Hin).
  - destruct (all_or_nothing_comp host (p_pat p)) as [E|E]; rewrite E in Hin; [destruct Hin|].
    exact (comp_unl_sound host (p_pat p) (so_host _ _ S) (so_pat _ _ S) k Hin).
  - destruct (all_or_nothing_bt host (p_pat p)) as [E|[E|E]]; rewrite E in Hin; [destruct Hin | |].
    + exact (comp_unl_sound host (p_pat p) (so_host _ _ S) (so_pat _ _ S) k Hin).
    + apply (raw_is_mono host p k S). unfold raw_of. rewrite all_or_nothing_all.
      assert (L : (C06_Model.lenN (enum_all host (p_pat p)) <= thr_val)%N) by exact (so_count _ _ S).
      apply N.ltb_ge in L. rewrite L. exact Hin.
Qed.

(** the raw match SET of every strategy is the same for two writings *)
Lemma matches_any_order strat (host host' : hostg) (p p' : prepared) : is_strat strat ->
  side_ok_c host p -> side_ok_c host' p' -> same_graph host host' -> same_graph (p_pat p) (p_pat p') ->
  forall k, In k (raw_of strat host p) -> exists k2, In k2 (raw_of strat host' p') /\ Permutation k k2.
Proof.
  intros Hst [S Hb] [S' Hb'] Hh Hp k Hin.
  assert (Hall : forall m, In m (raw_of 0%N host p) -> exists m', In m' (raw_of 0%N host' p') /\ Permutation m m').
  { intros m Hm. exact (matches_all_any_order host host' (p_pat p) (p_pat p') Hh Hp (so_host _ _ S) (so_pat _ _ S)
                          (so_host _ _ S') (so_pat _ _ S') (so_count _ _ S) (so_count _ _ S') m Hm). }
  assert (Hcomp : forall m, In m (comp_unl (C06_Model.monos_on (host_c06 host) (pat_c06 (p_pat p))) true (host_c06 host) (pat_c06 (p_pat p))) ->
                  exists m', In m' (comp_unl (C06_Model.monos_on (host_c06 host') (pat_c06 (p_pat p'))) true (host_c06 host') (pat_c06 (p_pat p'))) /\ Permutation m m').
  { intros m Hm. exact (comp_unl_any_order host host' (p_pat p) (p_pat p') Hh Hp (so_host _ _ S) (so_pat _ _ S) (so_host _ _ S') (so_pat _ _ S') m Hm). }
  assert (Hcomp' : forall m, In m (comp_unl (C06_Model.monos_on (host_c06 host') (pat_c06 (p_pat p'))) true (host_c06 host') (pat_c06 (p_pat p'))) ->
                  exists m', In m' (comp_unl (C06_Model.monos_on (host_c06 host) (pat_c06 (p_pat p))) true (host_c06 host) (pat_c06 (p_pat p))) /\ Permutation m m').
  { intros m Hm. exact (comp_unl_any_order host' host (p_pat p') (p_pat p) (same_graph_sym _ _ Hh) (same_graph_sym _ _ Hp)
                          (so_host _ _ S') (so_pat _ _ S') (so_host _ _ S) (so_pat _ _ S) m Hm). }
  destruct Hst as [-> | [-> | ->]].
  - apply Hall. exact Hin.
  - unfold raw_of in *. rewrite (matches_comp_unl _ _ Hb) in Hin. rewrite (matches_comp_unl _ _ Hb'). apply Hcomp. exact Hin.
  - unfold raw_of in *. rewrite (matches_bt_unl _ _ Hb (so_count _ _ S)) in Hin. rewrite (matches_bt_unl _ _ Hb' (so_count _ _ S')).
    unfold bt_unl_result in *.
    destruct (comp_unl (C06_Model.monos_on (host_c06 host) (pat_c06 (p_pat p))) true (host_c06 host) (pat_c06 (p_pat p))) as [|c r] eqn:E.
    + destruct (comp_unl (C06_Model.monos_on (host_c06 host') (pat_c06 (p_pat p'))) true (host_c06 host') (pat_c06 (p_pat p'))) as [|c' r'] eqn:E'.
      * rewrite <- (matches_all_unl _ _ (so_count _ _ S')). apply Hall. unfold raw_of. rewrite (matches_all_unl _ _ (so_count _ _ S)). exact Hin.
      * exfalso. destruct (Hcomp' c' (or_introl eq_refl)) as (m' & [] & _).
    + destruct (Hcomp k Hin) as (k2 & Hk2 & Pk).
      destruct (comp_unl (C06_Model.monos_on (host_c06 host') (pat_c06 (p_pat p'))) true (host_c06 host') (pat_c06 (p_pat p'))) as [|c' r'] eqn:E'; [destruct Hk2|].
      exists k2. split; assumption.
Qed.

(** the set of glued ITS graphs of EVERY strategy does not depend on the insertion orders *)
Theorem glued_set_invariant_any strat (host host' : hostg) (p p' : prepared) : is_strat strat ->
  side_ok_c host p -> side_ok_c host' p' ->
  same_graph host host' -> same_graph (p_rc p) (p_rc p') -> same_graph (p_pat p) (p_pat p') ->
  forall T, In T (glued_of strat host p) -> exists T', In T' (glued_of strat host' p') /\ obs_eq T T'.
Proof.
  intros Hst SC SC' Hh Hr Hp T HT.
  pose proof (proj1 SC) as S. pose proof (proj1 SC') as S'.
  destruct (glued_in strat host p T (so_flag _ _ S) HT) as (k & Hraw & Hg).
  destruct (glue_transfer host host' (p_rc p) (p_rc p') (raw_of strat host' p') k T (same_graph_obs _ _ Hh) (same_graph_obs _ _ Hr)
              (so_rc_simple _ _ S) (so_rc_nodup _ _ S') (so_rc_simple _ _ S') (so_rc_closed _ _ S')
              (fun m I => mono_facts host' p' m S' (raw_is_mono_any strat host' p' m Hst S' I))
              (mono_facts host p k S (raw_is_mono_any strat host p k Hst S Hraw)) Hg) as (k' & T' & Hk' & Hg' & O').
  - destruct (matches_any_order strat host host' p p' Hst SC SC' Hh Hp k Hraw) as (k2 & Hraw2 & Pk).
    exists k2. split; [exact Hraw2 | exact (perm_items _ _ Pk)].
  - exists T'. split; [exact (in_glued strat host' p' k' T' (so_flag _ _ S') Hk' Hg') | exact O'].
Qed.

(** with renumbering: the whole clause at graph level, every strategy *)
Theorem glued_set_rewriting_any strat (sg pi : N -> N) (Hs : inj sg) (Hp : inj pi)
        (host host'' : hostg) (p p'' : prepared) : is_strat strat ->
  side_ok_c (relabel pi host) (relabel_prep sg p) -> side_ok_c host'' p'' ->
  same_graph (relabel pi host) host'' -> same_graph (relabel sg (p_rc p)) (p_rc p'') ->
  same_graph (relabel sg (p_pat p)) (p_pat p'') ->
  (forall T, In T (glued_of strat host p) -> exists T'', In T'' (glued_of strat host'' p'') /\ obs_eq (relabel pi T) T'') /\
  (forall T'', In T'' (glued_of strat host'' p'') -> exists T, In T (glued_of strat host p) /\ obs_eq (relabel pi T) T'').
Proof.
  intros Hst S. apply (set_rewriting side_ok_c (glued_of strat)); [exact (fun h h' q q' => glued_set_invariant_any strat h h' q q' Hst) | | exact S].
  exact (glued_relabel strat sg pi Hs Hp host p (so_flag _ _ (proj1 S))).
Qed.

(** ** the bound evaluated by the run function is the bound of the C06 specification *)
Lemma c_comp_bound_eq enum strict H P : c_comp_bound enum strict H P = comp_bound enum strict H P.
Proof. reflexivity. Qed.

Lemma comp_bound_ext (enum enum' : list N -> list N -> list C06_Model.mapping) strict H P :
  (forall hn pn, enum hn pn = enum' hn pn) -> comp_bound enum strict H P = comp_bound enum' strict H P.
Proof.
  intros E.
  assert (Ep : forall pc, percc_of enum H pc = percc_of enum' H pc).
  { intros pc. unfold percc_of, percc. apply flat_map_ext. intros ih. rewrite E. reflexivity. }
  unfold comp_bound, comp_unl. rewrite E. f_equal.
  - f_equal. destruct (length (C06_Model.comps P) =? 0); [reflexivity|].
    destruct (length (C06_Model.comps H) <? length (C06_Model.comps P)); [reflexivity|].
    destruct ((length (C06_Model.comps P) <? length (C06_Model.comps H)) && strict)%bool; [reflexivity|].
    f_equal. f_equal. apply map_ext. exact Ep.
  - apply map_ext. intros pc. rewrite Ep. reflexivity.
Qed.

Lemma side_okb_c_ok host p : side_okb_c host p = true -> side_ok_c host p.
Proof.
  unfold side_okb_c. intros H. apply andb_prop in H. destruct H as [H1 H2]. split; [apply side_okb_ok; exact H1|].
  apply N.leb_le in H2. rewrite c_comp_bound_eq in H2.
  rewrite <- (comp_bound_ext (monos_on' (host_c06 host) (pat_c06 (p_pat p))) (C06_Model.monos_on (host_c06 host) (pat_c06 (p_pat p)))
                true _ _ (fun hn pn => monos_on'_eq _ _ hn pn)).
  exact H2.
Qed.

Lemma vocabulary_c :
  (forall f, inj f <-> forall a b : N, f a = f b -> a = b) /\
  (forall sg pi (m : mapping), mv sg pi m = map (fun ph => (sg (fst ph), pi (snd ph))) m) /\
  (forall (g g' : hostg), same_graph g g' <->
     (forall u, label g' u = label g u) /\ (forall u v, LGraph.adj g' u v = LGraph.adj g u v) /\
     (forall u, In u (node_ids g) <-> In u (node_ids g')) /\ NoDup (node_ids g) /\ NoDup (node_ids g')) /\
  (forall (T T' : its), obs_eq T T' <->
     (forall n, label T' n = label T n) /\ (forall a b, LGraph.adj T' a b = LGraph.adj T a b)) /\
  (forall host p, side_okb host p = true ->
     p_flag p = false /\ gwf (host_c06 host) /\ gwf (pat_c06 (p_pat p)) /\
     (C06_Model.lenN (C06_Model.monos_on (host_c06 host) (pat_c06 (p_pat p))
                        (node_ids (host_c06 host)) (node_ids (pat_c06 (p_pat p)))) <= thr_val)%N /\
     NoDup (node_ids (p_rc p)) /\ simple_edgesb (gedges (p_rc p)) = true /\
     (forall a b x, In (a, b, x) (gedges (p_rc p)) -> In a (node_ids (p_rc p)) /\ In b (node_ids (p_rc p))) /\
     (forall u, In u (node_ids (p_pat p)) -> In u (node_ids (p_rc p)))) /\
  (forall host p, side_okb_c host p = true ->
     side_okb host p = true /\
     (comp_bound (C06_Model.monos_on (host_c06 host) (pat_c06 (p_pat p))) true (host_c06 host) (pat_c06 (p_pat p)) <= thr_val)%N).
Proof.
  destruct vocabulary as (V1 & V2 & V3 & V4 & V5).
  split; [exact V1|]. split; [exact V2|]. split; [exact V3|]. split; [exact V4|]. split; [exact V5|].
  intros host p H. split.
  - unfold side_okb_c in H. apply andb_prop in H. exact (proj1 H).
  - exact (proj2 (side_okb_c_ok host p H)).
Qed.

(** ** strategies at the level of RESULTS *)
Lemma glued_subset_of_raw strat (host : hostg) (p : prepared) : is_strat strat -> side_ok host p ->
  (forall k, In k (raw_of strat host p) -> exists k2, In k2 (raw_of 0%N host p) /\ Permutation k k2) ->
  forall T, In T (glued_of strat host p) -> exists T', In T' (glued_of 0%N host p) /\ obs_eq T T'.
Proof.
  intros Hst S Hsub T HT.
  destruct (glued_in strat host p T (so_flag _ _ S) HT) as (k & Hraw & Hg).
  destruct (glue_transfer host host (p_rc p) (p_rc p) (raw_of 0%N host p) k T (obs_eq_refl _) (obs_eq_refl _)
              (so_rc_simple _ _ S) (so_rc_nodup _ _ S) (so_rc_simple _ _ S) (so_rc_closed _ _ S)
              (fun m I => mono_facts host p m S (raw_is_mono host p m S I))
              (mono_facts host p k S (raw_is_mono_any strat host p k Hst S Hraw)) Hg) as (k' & T' & Hk' & Hg' & O').
  - destruct (Hsub k Hraw) as (k2 & Hraw2 & Pk). exists k2. split; [exact Hraw2 | exact (perm_items _ _ Pk)].
  - exists T'. split; [exact (in_glued 0%N host p k' T' (so_flag _ _ S) Hk' Hg') | exact O'].
Qed.

End WithThr.
