(** C05 — SynReactor(partial=True), exhaustive strategy, no result limit (embed_threshold not given ... or any cap with
    [pmax_val = 0]): the SET of raw partial matches does not depend on the insertion order of the substrate's atoms and
    bonds nor on the orientation of the stored bonds — what a rewriting of the substrate SMILES changes besides the
    numbering (numbering: proof/C05_Partial.v).  Per pattern component the exhaustive search lists the same embeddings
    (or nothing, past the cap, for both writings); combinations and back-tracking only depend on these lists as sets. *)
From Coq Require Import List ZArith.
From SK Require Import model.C03_Model model.C05_Model proof.C05_Order.
Import ListNotations.

Definition seteq {X} (l l' : list X) : Prop := forall x, In x l <-> In x l'.

Lemma flat_map_seteq {X Y} (f f' : X -> list Y) (l l' : list X) :
  seteq l l' -> (forall x, seteq (f x) (f' x)) -> seteq (flat_map f l) (flat_map f' l').
Proof.
  intros Hl Hf y. rewrite !in_flat_map. split; intros (x & Hx & Hy); exists x; split;
    try (apply Hl; exact Hx); try (apply Hf; exact Hy).
Qed.

Lemma flat_map_Forall2 {X X' Y} (R : X -> X' -> Prop) (f : X -> list Y) (f' : X' -> list Y) l l' :
  Forall2 R l l' -> (forall x x', R x x' -> seteq (f x) (f' x')) -> seteq (flat_map f l) (flat_map f' l').
Proof.
  intros HF Hf. induction HF as [|x x' r r' Hx _ IH]; simpl; [intros y; tauto|].
  intros y. rewrite !in_app_iff. rewrite (Hf x x' Hx y), (IH y). tauto.
Qed.

Lemma pbt_seteq (embs embs' : list (list mapping)) : Forall2 seteq embs embs' ->
  forall used acc, seteq (pbt embs used acc) (pbt embs' used acc).
Proof.
  induction 1 as [|lvl lvl' rest rest' Hl _ IH]; intros used acc; [intros m; tauto|].
  cbn [pbt]. apply flat_map_seteq; [exact Hl|]. intros emb.
  destruct (existsb _ (map snd emb)); [intros m; tauto | apply IH].
Qed.

Lemma combos_Forall2 {X} (R : X -> X -> Prop) (l l' : list X) : Forall2 R l l' ->
  forall k, Forall2 (Forall2 R) (combos k l) (combos k l').
Proof.
  induction 1 as [|x x' r r' Hx HF IH]; intros [|k]; simpl; try (repeat constructor).
  apply Forall2_app; [|apply IH].
  specialize (IH k). clear -Hx IH. induction IH; simpl; constructor; [constructor; assumption | assumption].
Qed.

Lemma Forall2_len {X Y} (R : X -> Y -> Prop) l l' : Forall2 R l l' -> length l = length l'.
Proof. induction 1; simpl; congruence. Qed.

Lemma match_all_k_seteq (embs embs' : list (list mapping)) : Forall2 seteq embs embs' ->
  seteq (match_all_k embs) (match_all_k embs').
Proof.
  intros HF. unfold match_all_k. rewrite <- (Forall2_len _ _ _ HF).
  apply flat_map_seteq; [intros k; tauto|]. intros k.
  apply (flat_map_Forall2 (Forall2 seteq)); [apply combos_Forall2; exact HF|].
  intros c c' Hc. apply pbt_seteq. exact Hc.
Qed.

Section WithThr.
Context {TH : Thr}.

Lemma comp_embeddings_host_order (H H' P : C06_Model.graph) : pmax_val = 0%N -> same_c06 H H' ->
  Forall2 seteq (comp_embeddings 0%N H P) (comp_embeddings 0%N H' P).
Proof.
  intros Hm HS. unfold comp_embeddings, pcfg_of. rewrite Hm.
  induction (C06_Model.comps P) as [|pc r IH]; simpl; constructor; [|exact IH].
  exact (find0_host_order false H H' _ HS).
Qed.

Theorem partial_matches_host_order (host host' : hostg) (pat : molg) :
  pmax_val = 0%N -> same_graph host host' ->
  match partial_matches 0%N host pat, partial_matches 0%N host' pat with
  | Some r, Some r' => forall m, In m r <-> In m r'
  | None, None => True
  | _, _ => False
  end.
Proof.
  intros Hm HS. unfold partial_matches.
  destruct (C06_Model.comps (pat_c06 pat)) as [|c cs] eqn:E; [exact Logic.I|].
  unfold plimit. rewrite Hm. simpl.
  apply match_all_k_seteq. apply comp_embeddings_host_order; [exact Hm | apply same_graph_c06; exact HS].
Qed.

End WithThr.
