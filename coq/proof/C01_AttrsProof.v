(** C01 — proofs about model/C01_Attrs.v: typesGH in the caller's order, positional decomposition *)
From Coq Require Import List NArith ZArith Bool.
From SK Require Import lib.LGraph lib.C01_GraphLemmas model.C01_Model model.C01_Opts model.C01_Attrs proof.C01_Proof proof.C01_OptsProof.
Import ListNotations.
Local Open Scope Z_scope.

Definition untyped_t (t : nattr) : gnodeA := (VS (a_el t), VB (a_arom t), VZ (a_hc t), VZ (a_ch t)).

Lemma first4_tuple rest (G : mgraph) n :
  first4 (tuple_gen (KEl :: KAr :: KHc :: KCh :: rest) G n) = Some (untyped_t (side_tuple G n)).
Proof. unfold tuple_gen, side_tuple. destruct (label G n); reflexivity. Qed.

Lemma dec_nodes_legacy rest (G H : mgraph) (sel : list aval * list aval -> list aval) (X : mgraph) :
  (forall n, sel (tuple_gen (KEl :: KAr :: KHc :: KCh :: rest) G n, tuple_gen (KEl :: KAr :: KHc :: KCh :: rest) H n) =
             tuple_gen (KEl :: KAr :: KHc :: KCh :: rest) X n) ->
  forall ns : list (N * gnode),
  dec_nodes_A sel (map (fun p => (fst p, (tuple_gen (KEl :: KAr :: KHc :: KCh :: rest) G (fst p),
                                          tuple_gen (KEl :: KAr :: KHc :: KCh :: rest) H (fst p)))) ns) =
  Some (map (fun p => (fst p, untyped_t (side_tuple X (fst p)))) ns).
Proof.
  intros Hsel ns. induction ns as [|[k a] r IH]; [reflexivity|].
  cbn [map dec_nodes_A fst snd]. rewrite Hsel, first4_tuple, IH. reflexivity.
Qed.

Definition as_untyped (g : mgraph) : lgraph gnodeA Z := LG (map (fun p => (fst p, untyped (snd p))) (gnodes g)) (gedges g).

Theorem attrs_legacy_prefix rest (G H : mgraph) :
  its_decompose_A (its_construct_A (KEl :: KAr :: KHc :: KCh :: rest) G H) =
  Some (as_untyped (fst (its_decompose (its_construct G H))), as_untyped (snd (its_decompose (its_construct G H)))).
Proof.
  unfold its_decompose_A, its_construct_A, its_construct_gen. cbn [gnodes gedges].
  cbv beta.
  rewrite (dec_nodes_legacy rest G H fst G (fun n => eq_refl)), (dec_nodes_legacy rest G H snd H (fun n => eq_refl)).
  unfold as_untyped, its_decompose, dec_side, its_construct. cbn [fst snd gnodes gedges]. rewrite !map_map.
  reflexivity.
Qed.

(** the sorted list of the six names: the decomposition's "element" is the aromatic flag *)
Definition sorted_six : list akey := [KAr; KAm; KCh; KEl; KHc; KNb].
Theorem attrs_order_refuted :
  exists G H : mgraph, wf G /\ wf H /\ same_nodes G H /\ orders_pos G /\ orders_pos H /\
    exists a b, its_decompose_A (its_construct_A sorted_six G H) = Some (a, b) /\
                a <> as_untyped (fst (its_decompose (its_construct G H))) /\
                label a 1%N = Some (VB false, VZ 1, VZ 0, VS 70%N).
Proof.
  exists ex_G, ex_H. split; [apply ex_G_wf|]. split; [apply ex_H_wf|]. split; [apply ex_same|]. split; [apply ex_pos_G|].
  split; [apply ex_pos_H|]. eexists. eexists. split; [reflexivity|]. split; [|reflexivity].
  intros E. vm_compute in E. discriminate.
Qed.

Example C01_attrs_nonvacuous :
  its_decompose_A (its_construct_A [KEl; KAr; KHc; KCh; KAm; KOther] ex_G ex_H) <> None /\
  its_decompose_A (its_construct_A [KEl; KAr; KHc] ex_G ex_H) = None /\
  option_map (fun a => length (fst a)) (label (its_construct_A [KEl; KAr; KHc; KCh; KAm; KOther] ex_G ex_H) 1%N) = Some 6%nat.
Proof. split; [discriminate|]. split; reflexivity. Qed.
