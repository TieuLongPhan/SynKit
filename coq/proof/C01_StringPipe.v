(** C01 — proofs about model/C01_String.v, part 3: rsmi_to_its / its_to_rsmi end to end *)
From Coq Require Import List NArith ZArith Bool Lia Arith.
From SK Require Import lib.LGraph lib.C01_GraphLemmas model.C01_Model model.C02_Model model.C01_String
  proof.C01_OptsProof proof.C01_Proof proof.C02_Proof proof.C01_StringProof proof.C01_StringHyd.
Import ListNotations.
Local Open Scope Z_scope.

Definition rmol_ok (m : rmol) : Prop := NoDup (map fst (mapped_nodes m)) /\ simple (mapped_bonds m).

(** * graph_of m is well formed as soon as no bond joins an atom map to itself *)
Lemma mapped_bond_ends (m : rmol) u v o : In (u, v, o) (mapped_bonds m) ->
  In u (map fst (mapped_nodes m)) /\ In v (map fst (mapped_nodes m)).
Proof.
  unfold mapped_bonds. rewrite in_flat_map. intros ([[i j] x] & _ & I). cbn [fst snd] in I.
  assert (forall k w, lookup_idx k (mapped_ix m) = Some w -> In w (map fst (mapped_nodes m))) as Hk.
  { intros k w E. rewrite mapped_ix_spec in E. destruct (nth_error (rm_atoms m) k) as [a|] eqn:Na; [|discriminate].
    destruct (is_mapped a) eqn:Ma; [|discriminate]. inversion E; subst w.
    change (ra_map a) with (fst (ra_map a, atom_node a)). apply in_map. apply mapped_nodes_in.
    exists a. repeat split; auto. eapply nth_error_In; eauto. }
  destruct (lookup_idx i (mapped_ix m)) as [a|] eqn:Ei; [|destruct I].
  destruct (lookup_idx j (mapped_ix m)) as [b|] eqn:Ej; [|destruct I].
  destruct I as [E|[]]. inversion E; subst. split; eauto.
Qed.

Lemma graph_of_wf (m : rmol) : rmol_ok m -> (forall u v o, In (u, v, o) (mapped_bonds m) -> u <> v) -> wf (graph_of m).
Proof.
  intros [Hn Hs] Hd. apply wf_intro; cbn [graph_of gedges]; [exact Hn| |exact Hs].
  intros a b x I. destruct (mapped_bond_ends m a b x I) as [Ha Hb]. repeat split; auto. eapply Hd; eauto.
Qed.

Lemma graph_of_wf_geq (m : rmol) (X : mgraph) : rmol_ok m -> wf X -> geq_sel (graph_of m) X -> wf (graph_of m).
Proof.
  intros Om WX [GL GA]. apply graph_of_wf; [exact Om|]. intros u v o I Euv. subst v.
  assert (adj (graph_of m) u u = Some o) as A.
  { unfold adj, graph_of. cbn [gedges]. apply (find_edge_iff (simple_consistent (proj2 Om))). left. exact I. }
  rewrite GA in A. apply (wf_adj_iff WX) in A. destruct A as [A|A]; apply (wf_edge_nodes WX) in A; destruct A as (_ & _ & A); congruence.
Qed.

Lemma graph_of_amap_id (m : rmol) : rmol_ok m -> amap_id (graph_of m).
Proof. intros [Hn Hs]. apply (mol_to_graph_amap_id m _ Hn Hs (mol_to_graph_closed m Hn Hs)). Qed.

Lemma rsmi_to_its_m_closed (mr mp : rmol) : rmol_ok mr -> rmol_ok mp ->
  rsmi_to_its_m mr mp = Some (its_construct (graph_of mr) (graph_of mp)).
Proof.
  intros [Nr Sr] [Np Sp]. unfold rsmi_to_its_m, rsmi_to_graph_m.
  rewrite (mol_to_graph_closed mr Nr Sr), (mol_to_graph_closed mp Np Sp). reflexivity.
Qed.

(** * its_decompose returns well-formed graphs *)
Lemma dec_edges_map sn se (I : its) :
  gedges (dec_side sn se I) =
  map (fun e : N * N * iedge => let '(u, v, x) := e in (u, v, se x))
      (filter (fun e : N * N * iedge => let '(_, _, x) := e in 0 <? se x) (gedges I)).
Proof.
  unfold dec_side. cbn [gedges]. induction (gedges I) as [|[[u v] x] r IH]; [reflexivity|].
  cbn [flat_map filter]. destruct (0 <? se x); cbn [app map]; rewrite IH; reflexivity.
Qed.

Lemma dec_wf sn se (I : its) : wf I -> wf (dec_side sn se I).
Proof.
  intros W. apply wf_intro.
  - unfold node_ids, dec_side. cbn [gnodes]. rewrite map_map. cbn [fst]. apply W.
  - intros a b x In1. apply in_dec_edges in In1. destruct In1 as (y & Iy & _ & _).
    destruct (wf_edge_nodes W Iy) as (Ha & Hb & Hab).
    unfold node_ids, dec_side. cbn [gnodes]. rewrite map_map. cbn [fst]. auto.
  - rewrite dec_edges_map. apply (simple_map_attr (fun _ _ (x : iedge) => se x)). apply simple_filter. apply wf_simple. exact W.
Qed.

(** * the preserved atom maps = atom maps of the hydrogens of the reaction centre *)
Lemma hlist_spec (I : its) z : In z (hlist I) <-> exists n b, In (n, b) (gnodes (get_rc I)) /\ i_el b = EL_H /\ z = i_amap b.
Proof.
  unfold hlist. rewrite in_map_iff. split.
  - intros ([n b] & E & F). apply filter_In in F. destruct F as [F1 F2]. cbn [snd] in *. apply N.eqb_eq in F2. eauto.
  - intros (n & b & F & E & ->). exists (n, b). split; [reflexivity|]. apply filter_In. split; [exact F|]. cbn [snd]. rewrite E. reflexivity.
Qed.

Lemma hlist_label (I : its) z : wf I ->
  (In z (hlist I) <-> exists n b, label (get_rc I) n = Some b /\ i_el b = EL_H /\ z = i_amap b).
Proof.
  intros W. rewrite hlist_spec. pose proof (rc_wf I W) as Wrc. split.
  - intros (n & b & F & E). exists n, b. split; [|exact E]. apply assoc_nodup_in; [apply Wrc|exact F].
  - intros (n & b & L & E). exists n, b. split; [|exact E]. apply assoc_in. exact L.
Qed.

Lemma filter_nil {X} (p : X -> bool) (l : list X) : (forall x, In x l -> p x = false) -> filter p l = [].
Proof. induction l as [|a l IH]; intros H; [reflexivity|]. simpl. rewrite (H a (or_introl eq_refl)). apply IH. intros; apply H; right; assumption. Qed.

(** no hydrogen ATOM in the reactant graph  =>  nothing to preserve *)
Lemma hlist_nil_noH G H : (forall n a, label G n = Some a -> is_H a = false) -> hlist (its_construct G H) = [].
Proof.
  intros HnoH. unfold hlist. rewrite filter_nil; [reflexivity|].
  intros [n b] F. cbn [snd]. destruct (proj2 (rc_NInv (its_construct G H)) n b F) as (a & L & ->).
  cbn [rc_attr i_el]. destruct (its_label_types G H n a L) as (_ & _ & -> & _).
  unfold side_tuple. destruct (label G n) as [ag|] eqn:LG.
  - specialize (HnoH n ag LG). unfold is_H in HnoH. cbn [tuple_of a_el]. exact HnoH.
  - reflexivity.
Qed.

(** * C01_its_to_graphs: what its_to_rsmi hands to GraphToMol *)
Theorem its_to_graphs_spec (I : its) : wf I ->
  let d := its_decompose I in
  wf (fst d) /\ wf (snd d) /\ amap_id (fst d) /\ amap_id (snd d) /\
  (forall z, In z (hlist I) <-> exists n b, label (get_rc I) n = Some b /\ i_el b = EL_H /\ z = i_amap b) /\
  its_to_graphs I =
    match hlist I with
    | [] => d
    | _ => (implicit_hydrogen (fst d) (hlist I), implicit_hydrogen (snd d) (hlist I))
    end.
Proof.
  intros W d. subst d. unfold its_decompose. cbn [fst snd].
  split; [apply dec_wf; exact W|]. split; [apply dec_wf; exact W|].
  split; [apply dec_amap_id|]. split; [apply dec_amap_id|]. split.
  - intros z. apply hlist_label. exact W.
  - unfold its_to_graphs, smi_graph, its_decompose. cbn [fst snd]. destruct (hlist I); reflexivity.
Qed.

(** * C01_rsmi_pipeline: the string round trip relative to RDKit alone *)
Section Pipeline.
Variable str : Type.
Variable rd_read : str -> option rmol.
Variable rd_write : wmol -> option str.

(** RDKit contract R1: for a graph [g] that is, as a labelled graph, the MolToGraph reading of a molecule RDKit has parsed
    and sanitised, if RDKit accepts and writes the RWMol GraphToMol builds from [g], then reading the written string back gives
    a molecule with distinct atom maps whose MolToGraph reading is [g] again (element, aromaticity, H count, charge, bonds). *)
Definition R1 : Prop :=
  forall s0 m0 g w s, rd_read s0 = Some m0 -> wf g -> geq_sel g (graph_of m0) -> amap_id g ->
    graph_to_wmol g = Some w -> rd_write w = Some s ->
    exists m, rd_read s = Some m /\ rmol_ok m /\ geq_sel (graph_of m) g.

(** the two string functions, unfolded once: what is read, and what is handed to the writer *)
Lemma rsmi_to_its_read r p mr mp : rd_read r = Some mr -> rd_read p = Some mp -> rmol_ok mr -> rmol_ok mp ->
  rsmi_to_its_s rd_read r p = Some (its_construct (graph_of mr) (graph_of mp)).
Proof.
  intros Rr Rp Okr Okp. unfold rsmi_to_its_s. rewrite Rr, Rp. apply rsmi_to_its_m_closed; assumption.
Qed.

Lemma its_to_rsmi_written eh J r' p' : its_to_rsmi_s_opt rd_write eh J = Some (r', p') ->
  exists wr wp, graph_to_wmol (fst (its_to_graphs_opt eh J)) = Some wr /\ graph_to_wmol (snd (its_to_graphs_opt eh J)) = Some wp /\
                rd_write wr = Some r' /\ rd_write wp = Some p'.
Proof.
  unfold its_to_rsmi_s_opt, its_to_wmols_opt.
  destruct (graph_to_wmol (fst (its_to_graphs_opt eh J))) as [wr|]; [|discriminate].
  destruct (graph_to_wmol (snd (its_to_graphs_opt eh J))) as [wp|]; [|discriminate].
  destruct (rd_write wr) as [a|] eqn:Wa; [|discriminate]. destruct (rd_write wp) as [b|] eqn:Wb; [|discriminate].
  intros [= <- <-]. exists wr, wp. auto.
Qed.

(** whenever the two decomposed graphs themselves are written, R1 reads them back as the input graphs *)
Lemma R1_roundtrip : R1 ->
  forall r p mr mp, rd_read r = Some mr -> rd_read p = Some mp ->
  let G := graph_of mr in let H := graph_of mp in
  wf G -> wf H -> same_nodes G H -> orders_pos G -> orders_pos H ->
  forall eh r' p', its_to_graphs_opt eh (its_construct G H) = its_decompose (its_construct G H) ->
  its_to_rsmi_s_opt rd_write eh (its_construct G H) = Some (r', p') ->
  exists mr' mp', rd_read r' = Some mr' /\ rd_read p' = Some mp' /\ rmol_ok mr' /\ rmol_ok mp' /\
                  geq_sel (graph_of mr') G /\ geq_sel (graph_of mp') H.
Proof.
  intros HR r p mr mp Rr Rp G H WG WH S PG PH eh r' p' EG E2.
  destruct (its_to_rsmi_written eh _ r' p' E2) as (wr & wp & Wr & Wp & Ws1 & Ws2). rewrite EG in Wr, Wp.
  destruct (roundtrip G H WG WH S PG PH) as (R1g & A1 & R2h & A2).
  assert (wf (its_construct G H)) as WI by (apply its_wf; assumption).
  destruct (HR r mr _ wr r' Rr (dec_wf _ _ _ WI) R1g A1 Wr Ws1) as (mr' & Rr' & Okr & Gr).
  destruct (HR p mp _ wp p' Rp (dec_wf _ _ _ WI) R2h A2 Wp Ws2) as (mp' & Rp' & Okp & Gp).
  exists mr', mp'. split; [exact Rr'|]. split; [exact Rp'|]. split; [exact Okr|]. split; [exact Okp|].
  split; [exact (geq_sel_trans _ _ _ Gr R1g)|exact (geq_sel_trans _ _ _ Gp R2h)].
Qed.

Theorem rsmi_pipeline : R1 ->
  forall r p mr mp, rd_read r = Some mr -> rd_read p = Some mp -> rmol_ok mr -> rmol_ok mp ->
  let G := graph_of mr in let H := graph_of mp in
  wf G -> wf H -> same_nodes G H -> orders_pos G -> orders_pos H ->
  (forall n a, label G n = Some a -> is_H a = false) ->
  forall I r' p', rsmi_to_its_s rd_read r p = Some I -> its_to_rsmi_s rd_write I = Some (r', p') ->
  I = its_construct G H /\
  exists mr' mp', rd_read r' = Some mr' /\ rd_read p' = Some mp' /\ rmol_ok mr' /\ rmol_ok mp' /\
                  geq_sel (graph_of mr') G /\ geq_sel (graph_of mp') H.
Proof.
  intros HR r p mr mp Rr Rp Okr Okp G H WG WH S PG PH NoH I r' p' E1 E2.
  rewrite (rsmi_to_its_read r p mr mp Rr Rp Okr Okp) in E1. inversion E1; subst I. split; [reflexivity|].
  apply (R1_roundtrip HR r p mr mp Rr Rp WG WH S PG PH false r' p'); [|exact E2].
  unfold its_to_graphs_opt, its_to_graphs. rewrite (hlist_nil_noH _ _ NoH). reflexivity.
Qed.
End Pipeline.

(** * non-vacuity *)
(** methyl bromide + hydroxide, one unmapped spectator atom (dropped), mapped atoms 1 (C), 2 (Br), 3 (O) *)
Definition ex_mr : rmol :=
  RM [RA 70%N false 3 0 1%N [17013%N]; RA 17013%N false 0 0 2%N [70%N]; RA 82%N false 1 (-1) 3%N []; RA 20000%N false 0 1 0%N []]
     [(0%nat, 1%nat, 2)].
Definition ex_mp : rmol :=
  RM [RA 70%N false 3 0 1%N [82%N]; RA 82%N false 1 0 3%N [70%N]; RA 17013%N false 0 (-1) 2%N []]
     [(0%nat, 1%nat, 2)].

Lemma ex_mr_ok : rmol_ok ex_mr.
Proof. split; [apply nodupNb_spec|apply simpleb_spec]; reflexivity. Qed.
Lemma ex_mp_ok : rmol_ok ex_mp.
Proof. split; [apply nodupNb_spec|apply simpleb_spec]; reflexivity. Qed.

Example C01_mol_to_graph_nonvacuous :
  rmol_ok ex_mr /\ rmol_ok ex_mp /\ node_ids (graph_of ex_mr) = [1; 2; 3]%N /\ gedges (graph_of ex_mr) = [(1%N, 2%N, 2)] /\
  mol_to_graph true true ex_mr = Some (graph_of ex_mr) /\
  option_map (fun g : mgraph => length (gnodes g)) (mol_to_graph false true ex_mr) = Some 4%nat /\
  mol_to_graph true false ex_mr = None.
Proof.
  split; [exact ex_mr_ok|]. split; [exact ex_mp_ok|]. repeat split.
Qed.

(** a graph with explicit hydrogens: C1 bonded to H2, H3 (preserved: maps 2 and 3) and H4 (folded) *)
Definition ex_gh : mgraph :=
  LG [(1%N, GN 70%N false 0 0 None 1); (2%N, GN EL_H false 0 0 None 2); (3%N, GN EL_H false 0 0 None 3); (4%N, GN EL_H false 0 0 None 4)]
     [(1%N, 2%N, 2); (3%N, 1%N, 2); (1%N, 4%N, 2)].
Lemma ex_gh_wf : wf ex_gh.
Proof.
  apply wfb_spec. reflexivity.
Qed.
Example C01_implicit_hydrogen_nonvacuous :
  wf ex_gh /\
  node_ids (implicit_hydrogen ex_gh [2; 3]) = [1; 2; 3]%N /\
  option_map g_hc (label (implicit_hydrogen ex_gh [2; 3]) 1%N) = Some 1 /\
  count_h ex_gh 1%N = 3 /\ count_pres ex_gh [2; 3] 1%N = 2 /\ count_h (implicit_hydrogen ex_gh [2; 3]) 1%N = 2 /\
  option_map (fun w : wmol => (length (fst w), snd w)) (graph_to_wmol (implicit_hydrogen ex_gh [2; 3])) =
    Some (3%nat, [(0%nat, 1%nat, 1%N); (2%nat, 0%nat, 1%N)]).
Proof. split; [apply ex_gh_wf|]. repeat split. Qed.

(** the reaction-side hypotheses of C01_rsmi_pipeline hold together on the example: no hydrogen atom, so nothing is preserved
    and its_to_rsmi writes the decomposed graphs themselves *)
Example C01_its_to_graphs_nonvacuous :
  let I := its_construct (graph_of ex_mr) (graph_of ex_mp) in
  wf I /\ hlist I = [] /\ its_to_graphs I = its_decompose I /\
  (forall n a, label (graph_of ex_mr) n = Some a -> is_H a = false) /\
  same_nodes (graph_of ex_mr) (graph_of ex_mp) /\
  exists w, its_to_wmols I = Some w.
Proof.
  cbv zeta.
  assert (forall n a, label (graph_of ex_mr) n = Some a -> is_H a = false) as NoH.
  { intros n a L. apply assoc_in in L. cbn in L. destruct L as [E|[E|[E|[]]]]; inversion E; reflexivity. }
  assert (wf (graph_of ex_mr) /\ wf (graph_of ex_mp)) as [W1 W2] by (split; apply wfb_spec; reflexivity).
  split; [apply its_wf; assumption|]. split; [apply hlist_nil_noH; exact NoH|].
  split; [unfold its_to_graphs; rewrite (hlist_nil_noH _ _ NoH); reflexivity|].
  split; [exact NoH|]. split; [intros n; cbn; tauto|]. eexists. vm_compute. reflexivity.
Qed.

(** R1 is satisfiable by a reader/writer pair that actually writes (strings = bool: true = the reactant molecule,
    false = the product molecule; the writer recognises the hydroxide oxygen), and then the whole pipeline theorem applies
    with a non-trivial conclusion *)
Definition ex_read (b : bool) : option rmol := Some (if b then ex_mr else ex_mp).
Definition ex_write (w : wmol) : option bool := Some (existsb (fun a => (w_map a =? 3) && (w_ch a =? -1)) (fst w)).

Lemma wmol_atoms (g : mgraph) w : wf g -> graph_to_wmol g = Some w ->
  forall wa, In wa (fst w) <-> exists n a, label g n = Some a /\ wa = watom_of a.
Proof.
  intros W E wa. destruct (graph_to_wmol_spec g) as [_ Hs]. destruct (Hs w E) as (-> & _). rewrite in_map_iff. split.
  - intros ([n a] & <- & I). exists n, a. split; [|reflexivity]. apply assoc_nodup_in; [apply W|exact I].
  - intros (n & a & L & ->). exists (n, a). split; [reflexivity|]. apply assoc_in. exact L.
Qed.

Lemma geq_sel_sym (g h : mgraph) : geq_sel g h -> geq_sel h g.
Proof. intros [A B]. split; intros; symmetry; auto. Qed.

Lemma geq_sel_is_Hn (g g' : mgraph) : geq_sel g' g -> forall n, is_Hn g' n = is_Hn g n.
Proof.
  intros [L _] n. unfold is_Hn. specialize (L n).
  destruct (label g' n) as [a|], (label g n) as [b|]; cbn in L; try discriminate; [|reflexivity].
  unfold sel4 in L. injection L as E1 _ _ _. rewrite E1. reflexivity.
Qed.

Lemma geq_sel_node_ids (g g' : mgraph) n : geq_sel g g' -> In n (node_ids g) -> In n (node_ids g').
Proof.
  intros [L _] I. apply node_label_some in I. destruct I as (a & La). specialize (L n). rewrite La in L.
  destruct (label g' n) eqn:Lb; [eapply label_some_node; eauto|discriminate].
Qed.

Example C01_R1_nonvacuous :
  R1 bool ex_read ex_write /\
  exists I r' p', rsmi_to_its_s ex_read true false = Some I /\ its_to_rsmi_s ex_write I = Some (r', p') /\ r' = true /\ p' = false.
Proof.
  split.
  - intros s0 m0 g w s Rd W Gq Am Gw Wr. unfold ex_write in Wr. inversion Wr as [Es]. clear Wr. clear Es.
    pose proof (wmol_atoms g w W Gw) as Hat.
    assert (forall a, label g 3%N = Some a -> g_amap a = 3) as Am3 by (intros a L; apply (Am 3%N a L)).
    destruct Gq as [Gl Ga].
    unfold ex_read in Rd. destruct s0; inversion Rd; subst m0; clear Rd.
    + (* the reactant: node 3 is the hydroxide oxygen *)
      pose proof (Gl 3%N) as L3. cbn in L3. destruct (label g 3%N) as [a|] eqn:La; [|discriminate]. cbn in L3. unfold sel4 in L3. injection L3 as E1 E2 E3 E4.
      assert (existsb (fun a => (w_map a =? 3) && (w_ch a =? -1)) (fst w) = true) as ->.
      { apply existsb_exists. exists (watom_of a). split; [apply Hat; eauto|]. cbn. rewrite (Am3 a eq_refl), E4. reflexivity. }
      exists ex_mr. split; [reflexivity|]. split; [exact ex_mr_ok|].
      apply geq_sel_sym. split; assumption.
    + (* the product: no atom with map 3 carries charge -1 *)
      assert (existsb (fun a => (w_map a =? 3) && (w_ch a =? -1)) (fst w) = false) as ->.
      { destruct (existsb _ (fst w)) eqn:E; [|reflexivity]. exfalso. apply existsb_exists in E. destruct E as (wa & Iw & Ew).
        apply Hat in Iw. destruct Iw as (n & a & L & ->). cbn in Ew. apply andb_true_iff in Ew. destruct Ew as [Em Ec].
        apply Z.eqb_eq in Em, Ec. pose proof (Am n a L) as An. rewrite Em in An. assert (n = 3%N) as -> by lia.
        pose proof (Gl 3%N) as L3. rewrite L in L3. cbn in L3. unfold sel4 in L3. injection L3 as E1 E2 E3 E4. rewrite E4 in Ec. discriminate. }
      exists ex_mp. split; [reflexivity|]. split; [exact ex_mp_ok|].
      apply geq_sel_sym. split; assumption.
  - eexists. eexists. eexists. split; [vm_compute; reflexivity|]. split; [vm_compute; reflexivity|]. split; reflexivity.
Qed.

(** * C01_rsmi_pipeline_explicit: with its_to_rsmi(explicit_hydrogen=True) nothing is folded, so the round trip relative
    to R1 holds for every balanced reaction, explicit hydrogen atoms included *)
Theorem rsmi_pipeline_explicit (str : Type) (rd_read : str -> option rmol) (rd_write : wmol -> option str) :
  R1 str rd_read rd_write ->
  forall r p mr mp, rd_read r = Some mr -> rd_read p = Some mp -> rmol_ok mr -> rmol_ok mp ->
  let G := graph_of mr in let H := graph_of mp in
  wf G -> wf H -> same_nodes G H -> orders_pos G -> orders_pos H ->
  forall J r' p', rsmi_to_its_s rd_read r p = Some J -> its_to_rsmi_s_opt rd_write true J = Some (r', p') ->
  J = its_construct G H /\
  exists mr' mp', rd_read r' = Some mr' /\ rd_read p' = Some mp' /\ rmol_ok mr' /\ rmol_ok mp' /\
                  geq_sel (graph_of mr') G /\ geq_sel (graph_of mp') H.
Proof.
  intros HR r p mr mp Rr Rp Okr Okp G H WG WH S PG PH J r' p' E1 E2.
  rewrite (rsmi_to_its_read _ rd_read r p mr mp Rr Rp Okr Okp) in E1. inversion E1; subst J. split; [reflexivity|].
  apply (R1_roundtrip _ rd_read rd_write HR r p mr mp Rr Rp WG WH S PG PH true r' p'); [reflexivity|exact E2].
Qed.

Example C01_rsmi_pipeline_explicit_nonvacuous :
  exists J r' p', rsmi_to_its_s ex_read true false = Some J /\ its_to_rsmi_s_opt ex_write true J = Some (r', p') /\ r' = true /\ p' = false.
Proof. eexists. eexists. eexists. split; [vm_compute; reflexivity|]. split; [vm_compute; reflexivity|]. split; reflexivity. Qed.

Example C01_rsmi_to_its_sel_nonvacuous :
  rsmi_to_its_sel all_sel ex_mr ex_mp <> None /\
  option_map (fun J => option_map (fun b => a_hc (i_G b)) (label J 1%N)) (rsmi_to_its_sel (AS true true false true true true) ex_mr ex_mp) = Some (Some 0) /\
  option_map (fun J => option_map (fun b => a_hc (i_G b)) (label J 1%N)) (rsmi_to_its_sel all_sel ex_mr ex_mp) = Some (Some 3).
Proof. split; [discriminate|]. split; reflexivity. Qed.
