(** C07 — the WL-histogram cache never changes an answer (state-machine theorem).
    Invariant: every cache entry (graph index, node_attrs) holds the histogram [wl1_hash node_attrs graph].
    Under the invariant every query answers like its cache-free ("pure") version; every step preserves the invariant;
    the empty cache satisfies it.  No assumption on VF2 is needed.  Stdlib lists. *)
From Coq Require Import List NArith Bool Arith Lia.
From SK Require Import lib.Tok model.C07_Model.
Import ListNotations.

Definition cache_inv (gs : list graph) (c : cache) : Prop :=
  forall gi na h, cache_get (gi, na) c = Some h -> h = wl1_hash na (gnth gs gi).

(** a boolean test on lists that compares element by element with a test that reflects equality reflects equality *)
Lemma list_eqb_eq {X} (eqb : X -> X -> bool) (leqb : list X -> list X -> bool) :
  (forall x y, eqb x y = true <-> x = y) ->
  (forall a b, leqb a b = match a, b with [], [] => true | x :: a', y :: b' => eqb x y && leqb a' b' | _, _ => false end) ->
  forall a b, leqb a b = true <-> a = b.
Proof.
  intros He Hl. induction a as [|x a IH]; intros [|y b]; rewrite Hl; split; try discriminate; auto.
  - intros E. apply andb_prop in E. destruct E as (E1 & E2). apply He in E1. apply IH in E2. congruence.
  - intros [= -> ->]. apply andb_true_intro. split; [apply He | apply IH]; reflexivity.
Qed.

Lemma ln_eqb_eq a b : ln_eqb a b = true <-> a = b.
Proof. apply (list_eqb_eq N.eqb); [apply N.eqb_eq | intros [|] [|]; reflexivity]. Qed.

Lemma ckey_eqb_eq a b : ckey_eqb a b = true <-> a = b.
Proof.
  destruct a as [i l], b as [j k]. unfold ckey_eqb; simpl. rewrite andb_true_iff, Nat.eqb_eq, ln_eqb_eq.
  split; [intros [-> ->]; reflexivity | intros [= -> ->]; auto].
Qed.

Lemma cache_inv_nil gs : cache_inv gs [].
Proof. intros gi na h. simpl. discriminate. Qed.

Lemma wl_cached_pure gs na gi c : cache_inv gs c ->
  exists c', wl_cached na gi (gnth gs gi) c = (wl1_hash na (gnth gs gi), c') /\ cache_inv gs c'.
Proof.
  intros Hc. unfold wl_cached. destruct (cache_get (gi, na) c) as [h|] eqn:E.
  - exists c. rewrite (Hc _ _ _ E). auto.
  - eexists. split; [reflexivity|]. intros gj nb h. simpl.
    destruct (ckey_eqb (gj, nb) (gi, na)) eqn:K.
    + apply ckey_eqb_eq in K. inversion K; subst. intros [= <-]. reflexivity.
    + apply Hc.
Qed.

Definition pre_check_p (e : engine) (H P : graph) : bool :=
  if (n_nodes H <? n_nodes P) || (n_edges H <? n_edges P) then false
  else if negb (e_wl e) || negb (n_nodes H =? n_nodes P) then true
  else hist_contained (wl1_hash (e_na e) P) (wl1_hash (e_na e) H).

Section WithVF2.
Variable vf2b : bool -> (attrs -> attrs -> bool) -> (attrs -> attrs -> bool) -> graph -> graph -> bool.
Variable enum : (attrs -> attrs -> bool) -> (attrs -> attrs -> bool) -> graph -> graph -> list mapping.

Definition isomorphic_p (e : engine) (g1 g2 : graph) : bool :=
  let '(ga, gb) := if n_nodes g2 <? n_nodes g1 then (g2, g1) else (g1, g2) in
  if negb (pre_check_p e gb ga) then false
  else if n_nodes ga =? n_nodes gb then is_isomorphic vf2b (nm_eng e) (em_eng e) ga gb
       else vf2b true (nm_eng e) (em_eng e) ga gb.

Definition get_mappings_p (e : engine) (H P : graph) : list mapping :=
  if negb (pre_check_p e H P) then []
  else if (n_nodes P =? n_nodes H) && (n_edges P =? n_edges H) then
         (if is_isomorphic vf2b (nm_eng e) (em_eng e) H P
          then match enum (nm_eng e) (em_eng e) H P with m :: _ => [m] | [] => [] end
          else [])
       else take (e_mm e) (enum (nm_eng e) (em_eng e) H P).

Definition iso_trace_p (e : engine) (i : nat) (g1 : graph) (j : nat) (g2 : graph) : list N :=
  let '(a, ga, b, gb) := if n_nodes g2 <? n_nodes g1 then (j, g2, i, g1) else (i, g1, j, g2) in
  let ok := pre_check_p e gb ga in
  [N.of_nat b; N.of_nat a; if ok then 1%N else 0%N;
   if ok then (if n_nodes ga =? n_nodes gb then 1%N else 2%N) else 0%N].
Definition maps_trace_p (e : engine) (H P : graph) : list N :=
  let ok := pre_check_p e H P in
  [if ok then 1%N else 0%N;
   if ok then (if (n_nodes P =? n_nodes H) && (n_edges P =? n_edges H) then 1%N else 3%N) else 0%N].

Definition step_p (gs : list graph) (es : list engine) (q : query) : tok :=
  match q with
  | QIso e i j => L [tbool (isomorphic_p (enth es e) (gnth gs i) (gnth gs j)); tlist tN (iso_trace_p (enth es e) i (gnth gs i) j (gnth gs j))]
  | QPre e h p => tbool (pre_check_p (enth es e) (gnth gs h) (gnth gs p))
  | QMaps e h p =>
      let l := get_mappings_p (enth es e) (gnth gs h) (gnth gs p) in
      L [tnat (length l); tset tmapping (if determined (enth es e) (gnth gs h) (gnth gs p) then l else []);
         tlist tN (maps_trace_p (enth es e) (gnth gs h) (gnth gs p))]
  | QSub _ ch pa f ind nc ec names eattr => tbool (sub_iso vf2b f ind nc ec names eattr (gnth gs ch) (gnth gs pa))
  | QGiso i j a b d => tbool (giso vf2b a b d (gnth gs i) (gnth gs j))
  | QGiso0 i j => tbool (giso0 vf2b (gnth gs i) (gnth gs j))
  | QFgi i j ud fa a b d =>
      match fgi_map vf2b enum ud fa a b d (gnth gs i) (gnth gs j) with
      | Some m => L [tbool true; tnat (length m); tbool (negb (fa && negb (fgi_fast (gnth gs i) (gnth gs j))))]
      | None => L [tbool false; tnat 0; tbool (negb (fa && negb (fgi_fast (gnth gs i) (gnth gs j))))]
      end
  | QEntry fn ch pa o => L [tres (sub_entry vf2b fn o (gnth gs ch) (gnth gs pa)); tN (entry_trace fn o (gnth gs ch) (gnth gs pa))]
  | QCtor r => tctor r
  | QObj maps e i j =>
      match i, j with
      | Some i', Some j' =>
          if maps then tnat (length (get_mappings_p (enth es e) (gnth gs i') (gnth gs j')))
          else tbool (isomorphic_p (enth es e) (gnth gs i') (gnth gs j'))
      | _, _ => L [tN 99; tN 1]
      end
  | QFgiT t1 t2 i j ud fa a b d =>
      if N.eqb t1 t2 then (if fgi vf2b ud fa a b d (gnth gs i) (gnth gs j) then tbool true else tbool false) else tbool false
  | QQpf h p na ea thr =>
      L [tbool (quick_pre_filter na (gnth gs h) (gnth gs p) thr); tnat (length (find_all na ea thr false (gnth gs h) (gnth gs p)));
         tnat (length (find_all na ea thr true (gnth gs h) (gnth gs p)))]
  end.

(** The engine reaches the cache only through _pre_check: a call returns the cache of its one _pre_check call (on two graphs of the
    case), and its cache-free value as soon as that call returns its cache-free verdict. *)
Lemma isomorphic_via_pre gs e i j c : exists hi pi,
  snd (isomorphic vf2b e i (gnth gs i) j (gnth gs j) c) = snd (pre_check e hi (gnth gs hi) pi (gnth gs pi) c) /\
  (fst (pre_check e hi (gnth gs hi) pi (gnth gs pi) c) = pre_check_p e (gnth gs hi) (gnth gs pi) ->
   fst (isomorphic vf2b e i (gnth gs i) j (gnth gs j) c) = isomorphic_p e (gnth gs i) (gnth gs j) /\
   iso_trace e i (gnth gs i) j (gnth gs j) c = iso_trace_p e i (gnth gs i) j (gnth gs j)).
Proof.
  unfold isomorphic, isomorphic_p, iso_trace, iso_trace_p.
  destruct (n_nodes (gnth gs j) <? n_nodes (gnth gs i)); [exists i, j | exists j, i];
    destruct (pre_check e _ _ _ _ c) as [ok c']; simpl; (split; [destruct (negb ok); reflexivity | intros <-; destruct ok; auto]).
Qed.

Lemma get_mappings_via_pre gs e hi pi c :
  snd (get_mappings vf2b enum e hi (gnth gs hi) pi (gnth gs pi) c) = snd (pre_check e hi (gnth gs hi) pi (gnth gs pi) c) /\
  (fst (pre_check e hi (gnth gs hi) pi (gnth gs pi) c) = pre_check_p e (gnth gs hi) (gnth gs pi) ->
   fst (get_mappings vf2b enum e hi (gnth gs hi) pi (gnth gs pi) c) = get_mappings_p e (gnth gs hi) (gnth gs pi) /\
   maps_trace e hi (gnth gs hi) pi (gnth gs pi) c = maps_trace_p e (gnth gs hi) (gnth gs pi)).
Proof.
  unfold get_mappings, get_mappings_p, maps_trace, maps_trace_p. destruct (pre_check e _ _ _ _ c) as [ok c']; simpl.
  split; [|intros <-]; destruct ok; simpl; auto;
    destruct ((n_nodes (gnth gs pi) =? n_nodes (gnth gs hi)) && (n_edges (gnth gs pi) =? n_edges (gnth gs hi))); auto.
Qed.

Lemma let_pair {A B C} (x : A * B) (f : A -> C) : (let '(a, b) := x in (f a, b)) = (f (fst x), snd x).
Proof. destruct x. reflexivity. Qed.

Lemma step_via_pre gs es q c :
  step vf2b enum gs es q c = (step_p gs es q, c) \/
  exists e hi pi, snd (step vf2b enum gs es q c) = snd (pre_check (enth es e) hi (gnth gs hi) pi (gnth gs pi) c) /\
    (fst (pre_check (enth es e) hi (gnth gs hi) pi (gnth gs pi) c) = pre_check_p (enth es e) (gnth gs hi) (gnth gs pi) ->
     fst (step vf2b enum gs es q c) = step_p gs es q).
Proof.
  destruct q as [e i j|e h p|e h p| | | | | | |mp e [i|] [j|]| | ]; try (left; reflexivity); right; simpl; [| | |destruct mp];
    rewrite let_pair; simpl.
  - destruct (isomorphic_via_pre gs (enth es e) i j c) as (hi & pi & E & V). exists e, hi, pi.
    split; [exact E|]. intros P. destruct (V P) as (-> & ->). reflexivity.
  - destruct (get_mappings_via_pre gs (enth es e) h p c) as (E & V). exists e, h, p.
    split; [exact E|]. intros P. destruct (V P) as (-> & ->). reflexivity.
  - exists e, h, p. split; [reflexivity|]. intros ->. reflexivity.
  - destruct (get_mappings_via_pre gs (enth es e) i j c) as (E & V). exists e, i, j.
    split; [exact E|]. intros P. destruct (V P) as (-> & _). reflexivity.
  - destruct (isomorphic_via_pre gs (enth es e) i j c) as (hi & pi & E & V). exists e, hi, pi.
    split; [exact E|]. intros P. destruct (V P) as (-> & _). reflexivity.
Qed.

Lemma pre_check_pure gs e hi pi c : cache_inv gs c ->
  fst (pre_check e hi (gnth gs hi) pi (gnth gs pi) c) = pre_check_p e (gnth gs hi) (gnth gs pi) /\
  cache_inv gs (snd (pre_check e hi (gnth gs hi) pi (gnth gs pi) c)).
Proof.
  intros Hc. unfold pre_check, pre_check_p.
  destruct ((n_nodes (gnth gs hi) <? n_nodes (gnth gs pi)) || (n_edges (gnth gs hi) <? n_edges (gnth gs pi))); [auto|].
  destruct (negb (e_wl e) || negb (n_nodes (gnth gs hi) =? n_nodes (gnth gs pi))); [auto|].
  destruct (wl_cached_pure gs (e_na e) hi c Hc) as (c1 & E1 & H1). rewrite E1.
  destruct (wl_cached_pure gs (e_na e) pi c1 H1) as (c2 & E2 & H2). rewrite E2. auto.
Qed.

Lemma step_pure gs es q c : cache_inv gs c ->
  fst (step vf2b enum gs es q c) = step_p gs es q /\ cache_inv gs (snd (step vf2b enum gs es q c)).
Proof.
  intros Hc. destruct (step_via_pre gs es q c) as [E|(e & hi & pi & E & V)]; [rewrite E; auto|].
  destruct (pre_check_pure gs (enth es e) hi pi c Hc) as (A & B). rewrite E. auto.
Qed.

Lemma run_from_pure gs es qs : forall c, cache_inv gs c -> run_from vf2b enum gs es qs c = map (step_p gs es) qs.
Proof.
  induction qs as [|q qs IH]; intros c Hc; simpl; [reflexivity|].
  destruct (step_pure gs es q c Hc) as (E & H'). destruct (step vf2b enum gs es q c) as [t c']. simpl in E. subst t. f_equal. apply IH. exact H'.
Qed.

(** the answer a fresh engine (empty cache) gives to one query *)
Definition fresh_answer gs es q : tok := fst (step vf2b enum gs es q []).

Lemma fresh_answer_pure gs es q : fresh_answer gs es q = step_p gs es q.
Proof. apply step_pure, cache_inv_nil. Qed.

(** for every history of queries (any engines, any attribute selections, any graph objects of the case), from ANY cache
    state reachable under the invariant — in particular the empty one — each answer is the fresh engine's answer *)
Theorem no_history gs es qs c : cache_inv gs c -> run_from vf2b enum gs es qs c = map (fresh_answer gs es) qs.
Proof.
  intros Hc. rewrite (run_from_pure gs es qs c Hc). apply map_ext. intros q. symmetry. apply fresh_answer_pure.
Qed.

(** the invariant is preserved, so histories can be continued *)
Theorem cache_inv_step gs es q c : cache_inv gs c -> cache_inv gs (snd (step vf2b enum gs es q c)).
Proof. apply step_pure. Qed.

(** the cache observed at the end of a history holds the true histograms *)
Theorem end_cache_inv gs es qs : forall c, cache_inv gs c -> cache_inv gs (end_cache vf2b enum gs es qs c).
Proof.
  induction qs as [|q qs IH]; intros c Hc; simpl; [exact Hc|]. apply IH. apply cache_inv_step. exact Hc.
Qed.
End WithVF2.
