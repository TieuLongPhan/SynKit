(** C02 — rsmi_to_its(core=True, explicit_hydrogen=True): the reaction centre of the explicit-hydrogen ITS
    ([h_to_explicit_its], C01's model of synkit/Graph/Hyrogen/_misc.py h_to_explicit(its=True)).
    Making hydrogens explicit does not change the bonds of the centre: the new heavy-atom-to-H bonds are unchanged single bonds,
    and they are H-H bonds only when a HYDROGEN atom carries implicit hydrogens on both sides (hypothesis, with a witness that
    it is needed).  The centre atoms keep their labels up to the hydrogen counts inside typesGH that h_to_explicit decrements. *)
From Coq Require Import List NArith ZArith Bool Lia.
From SK Require Import lib.LGraph lib.C01_GraphLemmas model.C01_Model model.C01_String model.C02_Model
                       proof.C01_StringEH proof.C01_StringEHwf proof.C02_Proof proof.C02_Wfb proof.C02_Ball.
Import ListNotations.
Local Open Scope Z_scope.

(** every bond that h_to_explicit appends starts at an atom of the list it iterates over *)
Lemma step_edges_fst st h e : In e (step_edges st h) -> fst (fst e) = h.
Proof.
  unfold step_edges. destruct (assoc h (st_nodes st)) as [b|]; [|intros []]. destruct (hx_count b <=? 0); [intros []|].
  intros I. apply in_map_iff in I. destruct I as (n' & <- & _). reflexivity.
Qed.

Lemma hx_fold_edges_fst l : forall st, exists ne,
  st_edges (fold_left hx_step l st) = st_edges st ++ ne /\ Forall (fun e => In (fst (fst e)) l) ne.
Proof.
  induction l as [|h r IH]; intros st; cbn [fold_left].
  - exists []. rewrite app_nil_r. split; [reflexivity|constructor].
  - destruct (IH (hx_step st h)) as (ne & E & F). exists (step_edges st h ++ ne). split.
    + rewrite E, hx_step_edges, app_assoc. reflexivity.
    + apply Forall_app. split.
      * apply Forall_forall. intros e Ie. left. symmetry. apply (step_edges_fst st h e Ie).
      * eapply Forall_impl; [|exact F]. intros e Ie. right. exact Ie.
Qed.

Lemma gedges_hx (I : its) :
  gedges (fst (h_to_explicit_its I)) = st_edges (fold_left hx_step (node_ids I) (gnodes I, gedges I, fold_left N.max (node_ids I) 0%N)).
Proof.
  unfold h_to_explicit_its. destruct (fold_left hx_step (node_ids I) (gnodes I, gedges I, fold_left N.max (node_ids I) 0%N)) as [[ns es] mx].
  reflexivity.
Qed.

Lemma hx_upd_el a : i_el (hx_upd a) = i_el a.
Proof. unfold hx_upd. destruct (hx_count a <=? 0); reflexivity. Qed.

Section ExplicitH.
Variable I : its.
Hypothesis W : wf I.
(** no hydrogen ATOM has implicit hydrogens common to both sides ([HH] written as one atom) *)
Hypothesis Hh : forall n a, label I n = Some a -> i_el a = EL_H -> hx_count a <= 0.
Let J := fst (h_to_explicit_its I).
Let mx0 := fold_left N.max (node_ids I) 0%N.

Lemma is_h_J n : In n (node_ids I) -> is_h J n = is_h I n.
Proof.
  intros In_. destruct (assoc_is_some n (gnodes I) In_) as (a & La). fold (label I n) in La.
  destruct (h_to_explicit_its_spec I W) as (HL & _). destruct (HL n a La) as [_ LJ]. fold J in LJ.
  unfold is_h. rewrite LJ, La, hx_upd_el. reflexivity.
Qed.

(** a bond of J that is not a bond of I joins a non-hydrogen atom of I to a new atom and is an unchanged single bond *)
Lemma new_edge_facts : exists ne, gedges J = gedges I ++ ne /\
  forall u v x, In (u, v, x) ne -> x = IE 2 2 0 /\ In u (node_ids I) /\ is_h J u = false.
Proof.
  destruct (h_to_explicit_its_spec I W) as (HL & _ & (ne & En & Fe) & _). fold J in En. exists ne. split; [exact En|].
  intros u v x Iu. rewrite Forall_forall in Fe. pose proof (Fe _ Iu) as [_ Hx]. split; [exact Hx|].
  assert (In u (node_ids I)) as Iu'.
  { unfold J in En. rewrite gedges_hx in En.
    destruct (hx_fold_edges_fst (node_ids I) (gnodes I, gedges I, fold_left N.max (node_ids I) 0%N)) as (ne' & E' & F').
    rewrite E' in En. unfold st_edges in En. cbn [fst snd] in En. apply app_inv_head in En. subst ne'.
    rewrite Forall_forall in F'. exact (F' _ Iu). }
  split; [exact Iu'|].
  destruct (assoc_is_some u (gnodes I) Iu') as (a & La). fold (label I u) in La.
  destruct (h_to_explicit_count I W u a La) as (ne2 & E2 & C2 & _). fold J in E2. rewrite En in E2. apply app_inv_head in E2. subst ne2.
  assert (0 < hx_count a) as Hc.
  { destruct (Z.leb_spec (hx_count a) 0) as [Hle|]; [|assumption]. rewrite Z.max_l in C2 by lia. exfalso.
    assert (In (u, v, x) (filter (fun e : N * N * iedge => N.eqb (fst (fst e)) u) ne)) as F by (apply filter_In; split; [exact Iu|simpl; apply N.eqb_refl]).
    destruct (filter (fun e : N * N * iedge => N.eqb (fst (fst e)) u) ne); [destruct F|simpl in C2; discriminate]. }
  rewrite (is_h_J u Iu'). unfold is_h. rewrite La. destruct (N.eqb_spec (i_el a) EL_H) as [E|]; [|reflexivity].
  specialize (Hh u a La E). lia.
Qed.

Theorem rc_explicit_h_bonds u v e : adj (get_rc J) u v = Some e <-> adj (get_rc I) u v = Some e.
Proof.
  pose proof (h_to_explicit_its_wf I W) as WJ. fold J in WJ.
  destruct new_edge_facts as (ne & En & Fn).
  destruct (h_to_explicit_its_spec I W) as (_ & _ & _ & Hadj). fold J mx0 in Hadj.
  assert (forall h, In h (node_ids I) -> (h <= mx0)%N) as Hle by (intros h Ih; apply fold_max_ge; left; exact Ih).
  rewrite (rc_adj J WJ), (rc_adj I W). split.
  - intros [A Hs]. pose proof A as A0. apply (wf_adj_iff WJ) in A. rewrite En in A.
    assert (In (u, v, e) (gedges I) \/ In (v, u, e) (gedges I) \/ In (u, v, e) ne \/ In (v, u, e) ne) as Cases
      by (destruct A as [A|A]; apply in_app_iff in A; tauto).
    destruct Cases as [A1|[A1|[A1|A1]]].
    + destruct (wf_edge_nodes W A1) as (Pu & Pv & _). split; [apply (wf_adj_iff W); auto|].
      unfold is_hh in *. rewrite <- (is_h_J u Pu), <- (is_h_J v Pv). exact Hs.
    + destruct (wf_edge_nodes W A1) as (Pv & Pu & _). split; [apply (wf_adj_iff W); auto|].
      unfold is_hh in *. rewrite <- (is_h_J u Pu), <- (is_h_J v Pv). exact Hs.
    + exfalso. destruct (Fn u v e A1) as (-> & _ & Hu). unfold is_hh in Hs. rewrite Hu in Hs. destruct Hs as [Hs|Hs]; discriminate.
    + exfalso. destruct (Fn v u e A1) as (-> & _ & Hv). unfold is_hh in Hs. rewrite Hv, andb_false_r in Hs. destruct Hs as [Hs|Hs]; discriminate.
  - intros [A Hs]. destruct (adj_some_nodes I u v e W A) as [Pu Pv].
    split; [rewrite (Hadj u v (Hle u Pu) (Hle v Pv)); exact A|].
    unfold is_hh in *. rewrite (is_h_J u Pu), (is_h_J v Pv). exact Hs.
Qed.

Theorem rc_explicit_h_atoms n b :
  label (get_rc J) n = Some b <->
  exists a, label I n = Some a /\ b = rc_attr (hx_upd a) /\ exists v e, adj (get_rc I) n v = Some e.
Proof.
  pose proof (h_to_explicit_its_wf I W) as WJ. fold J in WJ.
  destruct (h_to_explicit_its_spec I W) as (HL & _). fold J in HL.
  rewrite (rc_nodes J WJ). split.
  - intros [(a' & La' & ->) (v & e & A)]. apply rc_explicit_h_bonds in A.
    assert (In n (node_ids I)) as Pn.
    { pose proof A as A1. apply (rc_adj I W) in A1. destruct A1 as [A1 _]. apply (adj_some_nodes I n v e W A1). }
    destruct (assoc_is_some n (gnodes I) Pn) as (a & La). fold (label I n) in La.
    destruct (HL n a La) as [_ LJ]. rewrite LJ in La'. injection La' as <-.
    exists a. split; [exact La|]. split; [reflexivity|]. exists v, e. exact A.
  - intros (a & La & -> & v & e & A). destruct (HL n a La) as [_ LJ]. split; [exists (hx_upd a); auto|].
    exists v, e. apply rc_explicit_h_bonds. exact A.
Qed.
End ExplicitH.

(** the hypothesis is needed: a hydrogen ATOM with one common implicit hydrogen ("[HH]") gets an explicit H neighbour, and that
    new H-H bond enters the centre *)
Definition hh_implicit : its :=
  LG [(1%N, IN EL_H 0 1 (Some (false, 1, [])) (NA EL_H false 1 0 []) (NA EL_H false 1 0 []))] [].
Theorem rc_explicit_h_needs_hypothesis :
  wf hh_implicit /\ gedges (get_rc hh_implicit) = [] /\
  gedges (get_rc (fst (h_to_explicit_its hh_implicit))) = [(1%N, 2%N, IE 2 2 0)].
Proof.
  split; [|vm_compute; split; reflexivity]. apply wfb_sound. reflexivity.
Qed.

(** non-vacuity: ex_eh of proof/C01_StringEH.v (CH3-OH -> CH3-OH2+) extended by a changed bond *)
Definition ex_eh2 : its :=
  LG [(1%N, IN 70%N 0 1 (Some (false, 3, [82%N])) (NA 70%N false 3 0 [82%N]) (NA 70%N false 3 0 [82%N]));
      (2%N, IN 82%N 0 2 (Some (false, 1, [70%N])) (NA 82%N false 1 0 [70%N]) (NA 82%N false 2 1 [70%N]))]
     [(1%N, 2%N, IE 2 4 (-2))].
Example C02_explicit_h_nonvacuous :
  wf ex_eh2 /\ (forall n a, label ex_eh2 n = Some a -> i_el a = EL_H -> hx_count a <= 0) /\
  length (gnodes (fst (h_to_explicit_its ex_eh2))) = 6%nat /\
  node_ids (get_rc (fst (h_to_explicit_its ex_eh2))) = [1%N; 2%N] /\
  option_map (fun b => a_hc (i_G b)) (label (get_rc (fst (h_to_explicit_its ex_eh2))) 1%N) = Some 0 /\
  option_map (fun b => a_hc (i_G b)) (label (get_rc ex_eh2) 1%N) = Some 3.
Proof.
  split; [|split; [|vm_compute; repeat split; reflexivity]].
  - apply wfb_sound. reflexivity.
  - intros n a L. unfold label in L. simpl in L.
    destruct (N.eqb n 1); [injection L as <-; discriminate|]. destruct (N.eqb n 2); [injection L as <-; discriminate|discriminate].
Qed.
