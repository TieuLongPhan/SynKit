(** C12 -- the returned list is sorted by the key (-len(d), tuple(sorted(d.items()))): larger mappings first, equal sizes in
    lexicographic order of their sorted item tuples.  [result_le a b] := not (b < a) in that order.
    Then prune_automorphisms=True: the host node sets that keep a representative ([host_sets_spec]) and VF2's choices as a
    validated parameter ([apply_choices_spec], [prune_auto_choices_valid]). *)
From Coq Require Import List NArith ZArith Bool Arith Lia Sorted.
From SK Require Import lib.LGraph model.C12_Model proof.C12_Search proof.C12_Proof.
Import ListNotations.

Definition result_le (a b : mapping) : Prop := result_ltb b a = false.

Lemma result_ltb_meaning a b :
  result_ltb a b = true <-> length b < length a \/ (length a = length b /\ items_ltb a b = true).
Proof.
  unfold result_ltb. rewrite orb_true_iff, andb_true_iff, Nat.ltb_lt, Nat.eqb_eq. reflexivity.
Qed.

Lemma pair_ltb_spec x y : pair_ltb x y = true <-> (fst x < fst y \/ (fst x = fst y /\ snd x < snd y))%N.
Proof. unfold pair_ltb. rewrite orb_true_iff, andb_true_iff, !N.ltb_lt, N.eqb_eq. reflexivity. Qed.

Lemma pair_ltb_asym x y : pair_ltb x y = true -> pair_ltb y x = false /\ pair_eqb y x = false.
Proof.
  intros H. apply pair_ltb_spec in H. split; apply not_true_iff_false.
  - intros H'. apply pair_ltb_spec in H'. lia.
  - intros E. apply pair_eqb_eq in E. subst. lia.
Qed.

Lemma pair_eqb_sym x y : pair_eqb x y = pair_eqb y x.
Proof. unfold pair_eqb. now rewrite (N.eqb_sym (fst x)), (N.eqb_sym (snd x)). Qed.

Lemma items_ltb_asym : forall a b, items_ltb a b = true -> items_ltb b a = false.
Proof.
  induction a as [|x a IH]; intros [|y b] H; simpl in *; try discriminate; try reflexivity.
  apply orb_prop in H. destruct H as [H|H].
  - destruct (pair_ltb_asym _ _ H) as (H1 & H2). now rewrite H1, H2.
  - apply andb_prop in H. destruct H as [He Hl]. rewrite (pair_eqb_sym y x), He. simpl. rewrite (IH _ Hl), orb_false_r.
    destruct (pair_ltb y x) eqn:E; [|reflexivity]. destruct (pair_ltb_asym _ _ E) as (_ & E2). congruence.
Qed.

Lemma result_ltb_asym a b : result_ltb a b = true -> result_ltb b a = false.
Proof.
  intros H. apply not_true_iff_false. intros H'. apply result_ltb_meaning in H, H'.
  destruct H as [H|(He & Hl)], H' as [H'|(He' & Hl')]; try lia.
  rewrite (items_ltb_asym _ _ Hl) in Hl'. discriminate.
Qed.

Lemma insert_result_hd x l a : HdRel result_le a l -> result_le a x -> HdRel result_le a (insert_result x l).
Proof.
  intros Hl Hx. destruct l as [|y r]; simpl; [now constructor|].
  destruct (result_ltb x y); constructor; [exact Hx|]. now inversion Hl.
Qed.

Lemma insert_result_sorted x l : Sorted result_le l -> Sorted result_le (insert_result x l).
Proof.
  induction 1 as [|y r Hs IH Hh]; simpl; [repeat constructor|].
  destruct (result_ltb x y) eqn:E.
  - constructor; [now constructor|]. constructor. unfold result_le. now apply result_ltb_asym.
  - constructor; [exact IH|]. apply insert_result_hd; [exact Hh|exact E].
Qed.

Theorem sort_results_sorted l : Sorted result_le (sort_results l).
Proof. unfold sort_results. induction l as [|x r IH]; simpl; [constructor|now apply insert_result_sorted]. Qed.

Theorem search_results_sorted nm em pattern host mcs : Sorted result_le (fst (fst (search_subgraphs nm em pattern host mcs))).
Proof.
  unfold search_subgraphs.
  destruct (search_loop nm em mcs pattern host (Nat.min (n_nodes pattern) (n_nodes host)) [] 0 0) as [[acc best] tr].
  cbn [fst]. apply sort_results_sorted.
Qed.

(** pattern -> host list of find_common_subgraph (the order in which the code returns it; inverting every mapping for a
    direction request keeps the positions) *)
Theorem fcs_sorted defs prune wc (g1 g2 : graph) mcs :
  Sorted result_le (get_mappings PatternToHost (find_common_subgraph defs prune wc g1 g2 mcs)).
Proof.
  destruct (fcs_maps_search defs prune wc g1 g2 mcs) as (pattern & host & E).
  cbn [get_mappings]. rewrite E. apply search_results_sorted.
Qed.

Module Example_sorted.
Open Scope N_scope.
Definition nd (i e : N) : N * nattr := (i, (Some e, [Some e])).
Definition ga : graph := LG [nd 1 1; nd 2 1; nd 3 2] [((1,2), [Some 2%Z]); ((2,3), [Some 4%Z])].
Definition gb : graph := LG [nd 10 2; nd 11 1; nd 12 1] [((10,11), [Some 4%Z]); ((11,12), [Some 2%Z])].
Example sorted_nonvacuous :
  get_mappings PatternToHost (find_common_subgraph [9] false 9 ga gb false) =
    [[(1, 12); (2, 11); (3, 10)]; [(1, 11); (2, 12)]; [(1, 12); (2, 11)]; [(1, 12); (3, 10)]; [(2, 11); (3, 10)];
     [(1, 11)]; [(1, 12)]; [(2, 11)]; [(2, 12)]; [(3, 10)]] /\
  Sorted result_le (get_mappings PatternToHost (find_common_subgraph [9] false 9 ga gb false)) /\
  ~ result_le [(1, 11)] [(2, 11); (3, 10)].
Proof.
  split; [vm_compute; reflexivity|]. split; [apply fcs_sorted|]. unfold result_le. vm_compute. discriminate.
Qed.
End Example_sorted.

(* ------------------------------------------------------------------ prune_automorphisms: the host node sets *)
Lemma insertN_perm x l : Permutation.Permutation (insertN x l) (x :: l).
Proof.
  induction l as [|y r IH]; simpl; [reflexivity|]. destruct (N.leb x y); [reflexivity|].
  eapply Permutation.perm_trans; [apply Permutation.perm_skip; exact IH|apply Permutation.perm_swap].
Qed.

Lemma host_set_perm m : Permutation.Permutation (host_set m) (map snd m).
Proof. exact (fold_insert_perm insertN insertN_perm (map snd m)). Qed.

Lemma nlist_eqb_eq a b : nlist_eqb a b = true <-> a = b.
Proof.
  revert b. induction a as [|x a IH]; intros [|y b]; simpl; split; try discriminate; try reflexivity.
  - intros H. apply andb_prop in H. destruct H as [H1 H2]. apply N.eqb_eq in H1. apply IH in H2. congruence.
  - intros E. inversion E; subst. rewrite N.eqb_refl. simpl. now apply IH.
Qed.

Lemma in_sets_spec x l : existsb (nlist_eqb x) l = true <-> In x l.
Proof.
  rewrite existsb_exists. split; [intros (y & Hy & E); apply nlist_eqb_eq in E; now subst|].
  intros I. exists x. split; [exact I|now apply nlist_eqb_eq].
Qed.

Lemma dedupe_sets_spec l : (forall x, In x (dedupe_sets l) <-> In x l) /\ NoDup (dedupe_sets l).
Proof.
  induction l as [|x r (IH1 & IH2)]; simpl; [split; [tauto|constructor]|].
  destruct (existsb (nlist_eqb x) r) eqn:E.
  - apply in_sets_spec in E. split; [|exact IH2]. intros z. rewrite IH1. split; [auto|intros [<-|H]; auto].
  - split; [intros z; simpl; rewrite IH1; tauto|].
    constructor; [|exact IH2]. intros I. apply IH1, in_sets_spec in I. congruence.
Qed.

(** the host node sets that keep a representative under prune_automorphisms: each occurs once, and they are exactly the
    (sorted) host node sets of the mappings the unpruned search returns *)
Theorem host_sets_spec maps :
  NoDup (host_sets maps) /\
  (forall hs, In hs (host_sets maps) <-> exists m, In m maps /\ host_set m = hs) /\
  (forall m, Permutation.Permutation (host_set m) (map snd m)).
Proof.
  unfold host_sets. destruct (dedupe_sets_spec (map host_set maps)) as (H1 & H2).
  split; [exact H2|]. split; [|exact host_set_perm].
  intros hs. rewrite H1, in_map_iff. split; intros (m & A & B); exists m; auto.
Qed.

Module Example_auto.
Import Example_sorted.
Open Scope N_scope.
(** ga = C1-C2=O3 against gb = O10=C11-C12, all sizes: 10 mappings, 7 host node sets keep a representative *)
Example host_sets_nonvacuous :
  length (r_maps (find_common_subgraph [9] false 9 ga gb false)) = 10%nat /\
  host_sets (r_maps (find_common_subgraph [9] false 9 ga gb false)) =
    [[10; 11; 12]; [11; 12]; [10; 12]; [10; 11]; [11]; [12]; [10]] /\
  NoDup (host_sets (r_maps (find_common_subgraph [9] false 9 ga gb false))).
Proof. split; [vm_compute; reflexivity|]. split; [vm_compute; reflexivity|apply host_sets_spec]. Qed.
End Example_auto.

(* ------------------------------------------------------------------ VF2's choices as a parameter *)
Lemma insertN_comm_lt x y l : (x < y)%N -> insertN x (insertN y l) = insertN y (insertN x l).
Proof.
  intros L.
  assert (Exy : N.leb x y = true) by (apply N.leb_le, N.lt_le_incl, L).
  assert (Eyx : N.leb y x = false) by (apply N.leb_gt, L).
  induction l as [|z r IH]; simpl.
  - now rewrite Exy, Eyx.
  - destruct (N.leb y z) eqn:Eyz; simpl.
    + assert (Exz : N.leb x z = true).
      { apply N.leb_le. apply N.leb_le in Eyz. eapply N.le_trans; [apply N.lt_le_incl, L|exact Eyz]. }
      rewrite Exy, Exz. simpl. now rewrite Eyx, Eyz.
    + destruct (N.leb x z) eqn:Exz; simpl.
      * now rewrite Eyx, Eyz.
      * now rewrite Eyz, IH.
Qed.

Lemma insertN_comm x y l : insertN x (insertN y l) = insertN y (insertN x l).
Proof.
  destruct (N.lt_trichotomy x y) as [L|[->|L]]; [now apply insertN_comm_lt|reflexivity|symmetry; now apply insertN_comm_lt].
Qed.

Lemma sortN_perm_eq l l' : Permutation.Permutation l l' -> fold_right insertN [] l = fold_right insertN [] l'.
Proof.
  induction 1; simpl; try congruence. apply insertN_comm.
Qed.

Lemma host_set_perm_eq m m' : Permutation.Permutation m m' -> host_set m = host_set m'.
Proof. intros P. unfold host_set. apply sortN_perm_eq. now apply Permutation.Permutation_map. Qed.

Lemma nodup_sets_sound l : nodup_sets l = true -> NoDup l.
Proof.
  induction l as [|x r IH]; simpl; intros H; [constructor|]. apply andb_prop in H. destruct H as [H1 H2].
  constructor; [|now apply IH]. intros I. apply in_sets_spec in I. apply negb_true_iff in H1. congruence.
Qed.

Theorem apply_choices_spec maps choices kept : apply_choices maps choices = Some kept ->
  (forall k, In k kept -> In k maps /\ exists c, In c choices /\ k = sort_items c) /\
  NoDup (map host_set kept) /\
  (forall m, In m maps -> exists k, In k kept /\ host_set k = host_set m) /\
  Sorted result_le kept.
Proof.
  unfold apply_choices. set (cs := filter (fun c => seen c maps) (map sort_items choices)).
  destruct (nodup_sets (map host_set cs) && forallb (fun hs => existsb (nlist_eqb hs) (map host_set cs)) (host_sets maps)) eqn:E;
    [|discriminate].
  intros [= <-]. apply andb_prop in E. destruct E as [E1 E2].
  assert (Hin : forall k, In k (sort_results cs) <-> In k cs) by (intros; apply sort_results_in).
  split; [|split; [|split]].
  - intros k Hk. apply Hin in Hk. unfold cs in Hk. apply filter_In in Hk. destruct Hk as (Hk & Hs).
    split; [now apply seen_spec|]. apply in_map_iff in Hk. destruct Hk as (c & <- & Ic). eauto.
  - eapply Permutation.Permutation_NoDup; [apply Permutation.Permutation_map, Permutation.Permutation_sym, sort_results_perm|].
    now apply nodup_sets_sound.
  - intros m Hm. rewrite forallb_forall in E2.
    assert (Ih : In (host_set m) (host_sets maps)) by (apply host_sets_spec; eauto).
    apply E2, in_sets_spec in Ih. apply in_map_iff in Ih. destruct Ih as (k & Ek & Ik). exists k. split; [now apply Hin|exact Ek].
  - apply sort_results_sorted.
Qed.

(** prune_automorphisms=True with VF2's choices as a parameter: whatever accepted choices are supplied, the kept mappings
    are valid (for the oriented pair), have pairwise different host node sets, are sorted, and in maximum mode every
    maximum common induced mapping has its host node set represented *)
Theorem prune_auto_choices_valid defs prune wc (g1 g2 : graph) mcs choices kept :
  NoDup (node_ids g1) -> NoDup (node_ids g2) ->
  let r := find_common_subgraph defs prune wc g1 g2 mcs in
  let ga := if r_pattern_is_g1 r then prune_graph prune wc g1 else prune_graph prune wc g2 in
  let gb := if r_pattern_is_g1 r then prune_graph prune wc g2 else prune_graph prune wc g1 in
  apply_choices (r_maps r) choices = Some kept ->
  (forall k, In k kept -> common_induced (node_match defs) edge_match ga gb k /\ In k (r_maps r) /\
                          exists c, In c choices /\ k = sort_items c) /\
  NoDup (map host_set kept) /\ Sorted result_le kept /\
  (mcs = true -> (forall k, In k kept -> length k = r_last r) /\
     forall m, common_induced (node_match defs) edge_match ga gb m -> length m = r_last r -> 1 <= r_last r ->
               exists k, In k kept /\ host_set k = host_set m).
Proof.
  intros N1 N2 r ga gb E.
  destruct (apply_choices_spec _ _ _ E) as (S1 & S2 & S3 & S4).
  split; [|split; [exact S2|split; [exact S4|]]].
  - intros k Hk. destruct (S1 k Hk) as (Ik & Hc). split; [|split; [exact Ik|exact Hc]].
    pose proof (proj2 (proj2 (fcs_valid defs prune wc g1 g2 N1 N2 mcs k))) as V. fold r in V.
    specialize (V Ik). unfold ga, gb. destruct (r_pattern_is_g1 r); exact V.
  - intros ->. destruct (fcs_maximum defs prune wc g1 g2 N1 N2) as (M12 & M21). fold r in M12, M21.
    assert (M : MaxSpec (node_match defs) edge_match ga gb (r_maps r) (r_last r)).
    { unfold ga, gb. unfold get_mappings in M12, M21. destruct (r_pattern_is_g1 r); assumption. }
    destruct M as (A1 & A2 & A3 & A4). split.
    + intros k Hk. apply A1. now apply S1.
    + intros m Hm Hl H1. destruct (A3 m Hm Hl H1) as (m' & I' & P). destruct (S3 m' I') as (k & Ik & Ek).
      exists k. split; [exact Ik|]. rewrite Ek. symmetry. now apply host_set_perm_eq.
Qed.

Module Example_choices.
Import Example_sorted.
Open Scope N_scope.
(** ga = C1-C2=O3, gb = O10=C11-C12, all sizes.  Two possible VF2 choices for the host set {11,12}: both accepted, giving
    different kept lists; a choice that is not a mapping of the result is ignored and then {10} has no representative *)
Definition base := [[(1, 12); (2, 11); (3, 10)]; [(1, 12); (3, 10)]; [(2, 11); (3, 10)]; [(1, 11)]; [(1, 12)]; [(3, 10)]].
Example choices_nonvacuous :
  apply_choices (r_maps (find_common_subgraph [9] false 9 ga gb false)) (([(1, 11); (2, 12)] : mapping) :: base) =
    Some [[(1, 12); (2, 11); (3, 10)]; [(1, 11); (2, 12)]; [(1, 12); (3, 10)]; [(2, 11); (3, 10)]; [(1, 11)]; [(1, 12)]; [(3, 10)]] /\
  apply_choices (r_maps (find_common_subgraph [9] false 9 ga gb false)) (([(2, 11); (1, 12)] : mapping) :: base) =
    Some [[(1, 12); (2, 11); (3, 10)]; [(1, 12); (2, 11)]; [(1, 12); (3, 10)]; [(2, 11); (3, 10)]; [(1, 11)]; [(1, 12)]; [(3, 10)]] /\
  apply_choices (r_maps (find_common_subgraph [9] false 9 ga gb false)) (([(1, 11); (2, 12)] : mapping) :: [(1, 10)] :: removelast base) = None.
Proof. repeat apply conj; vm_compute; reflexivity. Qed.
End Example_choices.
