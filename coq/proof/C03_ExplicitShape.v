(** C03 — the exact shape of the graph _explicit_h returns, given its list of migrations: the old edges followed by
    one (donor, H) bond (1,0) and one (H, recipient) bond (0,1) per migration, the old atoms followed by the new H
    atoms, and every old atom's two hydrogen counts lowered by the number of times it donates / receives. *)
From Coq Require Import List NArith ZArith Bool Lia.
From SK Require Import lib.Tok lib.LGraph model.C03_Model model.C03_Order proof.C03_Proof proof.C03_Glue proof.C03_ExplicitH.
Import ListNotations.
Local Open Scope Z_scope.

Lemma addH_fold_lists ms : forall J h J' h', fold_left addH_step ms (J, h) = (J', h') ->
  gnodes J' = gnodes J ++ new_nodes h ms /\ gedges J' = gedges J ++ new_edges h ms.
Proof.
  induction ms as [|sd r IH]; intros J h J' h' H.
  - simpl in H. inversion H; subst. simpl. rewrite !app_nil_r. auto.
  - cbn [fold_left] in H. unfold addH_step at 2 in H. destruct (IH _ _ _ _ H) as [E1 E2]. cbn [gnodes gedges] in E1, E2.
    rewrite E1, E2. cbn [new_nodes new_edges]. rewrite <- !app_assoc. split; reflexivity.
Qed.

Lemma new_nodes_ge h ms k a : In (k, a) (new_nodes h ms) -> (h <= k)%N /\ a = H_inode.
Proof.
  revert h. induction ms as [|sd r IH]; intros h I; [destruct I|]. simpl in I. destruct I as [I|I].
  - inversion I; subst. split; [lia|reflexivity].
  - destruct (IH _ I). split; [lia|assumption].
Qed.

Lemma dec_fold_label_other ms : forall J k,
  (forall sd, In sd ms -> fst sd <> k /\ snd sd <> k) -> label (fold_left dec_step ms J) k = label J k.
Proof.
  induction ms as [|sd r IH]; intros J k H; [reflexivity|]. cbn [fold_left]. rewrite IH by (intros; apply H; right; assumption).
  destruct (H sd (or_introl eq_refl)) as [H1 H2]. unfold dec_step. rewrite !label_upd.
  destruct (N.eqb_spec k (snd sd)); [congruence|]. destruct (N.eqb_spec k (fst sd)); [congruence|]. reflexivity.
Qed.

Lemma dec_fold_hc ms : forall J n a, label J n = Some a ->
  exists a', label (fold_left dec_step ms J) n = Some a' /\
    a_hc (iG a') = a_hc (iG a) - occurrences n (map fst ms) /\ a_hc (iH a') = a_hc (iH a) - occurrences n (map snd ms).
Proof.
  induction ms as [|sd r IH]; intros J n a Ha.
  - exists a. unfold occurrences; simpl. repeat split; auto; lia.
  - cbn [fold_left].
    assert (exists a1, label (dec_step J sd) n = Some a1 /\
              a_hc (iG a1) = a_hc (iG a) - (if N.eqb n (fst sd) then 1 else 0) /\
              a_hc (iH a1) = a_hc (iH a) - (if N.eqb n (snd sd) then 1 else 0)) as (a1 & H1 & G1 & G2).
    { unfold dec_step. rewrite !label_upd, Ha.
      destruct (N.eqb n (fst sd)), (N.eqb n (snd sd)); simpl; eexists; (split; [reflexivity|]); simpl; lia. }
    destruct (IH _ n a1 H1) as (a' & H' & F1 & F2). exists a'. split; [exact H'|].
    unfold occurrences in *. cbn [map filter]. destruct (N.eqb n (fst sd)), (N.eqb n (snd sd)); cbn [length]; lia.
Qed.

Section AnyOrder.
  Variable ord : list N -> list N.
  Hypothesis ord_in : forall l x, In x (ord l) <-> In x l.

  Theorem explicit_h_ord_shape T T' ms : NoDup (node_ids T) -> explicit_h_ord ord T = Some (T', ms) ->
    gedges T' = gedges T ++ new_edges (N.succ (max_id T)) ms /\
    node_ids T' = node_ids T ++ map fst (new_nodes (N.succ (max_id T)) ms) /\
    (forall k a, In (k, a) (new_nodes (N.succ (max_id T)) ms) -> label T' k = Some H_inode) /\
    (forall n a, label T n = Some a ->
       exists a', label T' n = Some a' /\
         a_hc (iG a') = a_hc (iG a) - occurrences n (map fst ms) /\ a_hc (iH a') = a_hc (iH a) - occurrences n (map snd ms)).
  Proof.
    intros Hnd H. destruct (explicit_h_ord_unfold ord T T' ms H) as (Hm & T1 & h1 & E1 & ->).
    pose proof (migrations_are_atoms_ord ord ord_in T ms Hm) as Hat.
    destruct (addH_fold_lists ms _ _ _ _ E1) as [N1 N2].
    destruct (addH_fold ms T (N.succ (max_id T)) T1 h1 E1 Hnd) as (A1 & _ & A3 & _ & _).
    { intros n I. pose proof (max_id_ge T n I). lia. }
    split; [|split; [|split]].
    - rewrite dec_fold_edges. exact N2.
    - rewrite dec_fold_ids. unfold node_ids. rewrite N1, map_app. reflexivity.
    - intros k a I. destruct (new_nodes_ge _ _ _ _ I) as [Hk ->]. rewrite dec_fold_label_other.
      + apply assoc_nodup_in; [exact A1|]. rewrite N1. apply in_or_app. right. exact I.
      + intros sd Isd. destruct (Hat sd Isd) as [H1 H2]. apply has_node_label in H1, H2. destruct H1 as [x Hx], H2 as [y Hy].
        unfold label in Hx, Hy. apply assoc_in in Hx, Hy.
        pose proof (max_id_ge T (fst sd) (in_map fst _ _ Hx)). pose proof (max_id_ge T (snd sd) (in_map fst _ _ Hy)).
        cbn [fst] in *. split; lia.
    - intros n a Ha. apply dec_fold_hc. apply A3. exact Ha.
  Qed.
End AnyOrder.

Theorem explicit_h_shape T T' ms : NoDup (node_ids T) -> explicit_h T = Some (T', ms) ->
  gedges T' = gedges T ++ new_edges (N.succ (max_id T)) ms /\
  node_ids T' = node_ids T ++ map fst (new_nodes (N.succ (max_id T)) ms) /\
  (forall k a, In (k, a) (new_nodes (N.succ (max_id T)) ms) -> label T' k = Some H_inode) /\
  (forall n a, label T n = Some a ->
     exists a', label T' n = Some a' /\
       a_hc (iG a') = a_hc (iG a) - occurrences n (map fst ms) /\ a_hc (iH a') = a_hc (iH a) - occurrences n (map snd ms)).
Proof. rewrite <- explicit_h_ord_sort. apply explicit_h_ord_shape. exact (fun l x => in_sort_N_iff x l). Qed.
