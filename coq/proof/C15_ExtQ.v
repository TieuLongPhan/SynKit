(** C15 — the read-only views of CRNHyperGraph (model/C15_Ext.v §2–3):
    sorted(), __len__, iteration, __contains__, neighbors, paths (soundness),
    incidence_matrix(sparse=False). *)
From stdpp Require Import gmap strings sets sorting.
From SK Require Import model.C15_Model model.C15_Ext proof.C15_Proof proof.C15_Ext.
Local Open Scope string_scope.

(** * 1. sorted() on strings *)

Global Instance sle15_total : Total sle15.
Proof. intros a b. apply String.leb_total. Qed.

Global Instance sle15_trans : Transitive sle15.
Proof.
  unfold sle15, String.leb. intros a. induction a as [|ca a IH]; intros [|cb b] [|cc c]; cbn; try done.
  unfold Ascii.compare.
  destruct (N.compare_spec (Ascii.N_of_ascii ca) (Ascii.N_of_ascii cb)) as [E1|E1|E1],
           (N.compare_spec (Ascii.N_of_ascii cb) (Ascii.N_of_ascii cc)) as [E2|E2|E2],
           (N.compare_spec (Ascii.N_of_ascii ca) (Ascii.N_of_ascii cc)) as [E3|E3|E3];
    try done; try lia.
  apply IH.
Qed.

Lemma ssort_perm l : ssort l ≡ₚ l.
Proof. apply merge_sort_Permutation. Qed.
Lemma ssort_sorted l : StronglySorted sle15 (ssort l).
Proof. apply Sorted_StronglySorted; [apply _|]. apply Sorted_merge_sort. apply _. Qed.
Lemma elem_of_ssort l x : x ∈ ssort l ↔ x ∈ l.
Proof. by rewrite ssort_perm. Qed.
Lemma ssort_NoDup l : NoDup l → NoDup (ssort l).
Proof. by rewrite ssort_perm. Qed.

Lemma species_list_spec s :
  StronglySorted sle15 (species_list s) ∧ NoDup (species_list s) ∧ ∀ x, x ∈ species_list s ↔ x ∈ species s.
Proof.
  unfold species_list. split_and!.
  - apply ssort_sorted.
  - apply ssort_NoDup, NoDup_elements.
  - intros x. by rewrite elem_of_ssort, elem_of_elements.
Qed.

Lemma edge_ids_sorted_spec s :
  StronglySorted sle15 (edge_ids_sorted s) ∧ NoDup (edge_ids_sorted s) ∧
  ∀ e, e ∈ edge_ids_sorted s ↔ is_Some (edges s !! e).
Proof.
  unfold edge_ids_sorted. split_and!.
  - apply ssort_sorted.
  - apply ssort_NoDup, NoDup_elements.
  - intros x. by rewrite elem_of_ssort, elem_of_elements, elem_of_dom.
Qed.

(** * 2. __len__, iteration, __contains__ *)

Lemma len_spec s : Inv s → len s = length (order s).
Proof.
  intros HI. unfold len. rewrite <- size_dom.
  assert (dom (edges s) = list_to_set (order s)) as ->.
  { apply set_eq. intros e. rewrite elem_of_dom, elem_of_list_to_set. symmetry. apply HI. }
  apply size_list_to_set, HI.
Qed.

Lemma iter_spec s : Inv s → (edge_seq s).*1 = order s ∧ list_to_map (edge_seq s) = edges s.
Proof.
  intros HI. split; [|by apply edge_seq_map].
  apply edge_seq_fst. intros e. apply HI.
Qed.

Lemma contains_spec s x : contains s x = true ↔ x ∈ species s ∨ is_Some (edges s !! x).
Proof. unfold contains. rewrite orb_true_iff, !bool_decide_eq_true. done. Qed.

(** * 3. neighbors *)

Definition nbr (s : net) (x y : string) : Prop :=
  ∃ e rx, edges s !! e = Some rx ∧ x ∈ dom (r_lhs rx) ∧ y ∈ dom (r_rhs rx).

Lemma neighbors_raw_fold s (X : gset string) :
  (∀ e, e ∈ X → is_Some (edges s !! e)) →
  ∃ N, set_fold (λ e acc, match acc, edges s !! e with
                          | Some a, Some rx => Some (a ∪ dom (r_rhs rx))
                          | _, _ => None end) (Some ∅) X = Some N ∧
       ∀ y, y ∈ N ↔ ∃ e rx, e ∈ X ∧ edges s !! e = Some rx ∧ y ∈ dom (r_rhs rx).
Proof.
  revert X. apply (set_fold_ind_L (λ acc (X : gset string),
    (∀ e, e ∈ X → is_Some (edges s !! e)) →
    ∃ N, acc = Some N ∧ ∀ y, y ∈ N ↔ ∃ e rx, e ∈ X ∧ edges s !! e = Some rx ∧ y ∈ dom (r_rhs rx))).
  - intros _. exists ∅. split; [done|]. intros y. split; [by intros ?%elem_of_empty|].
    by intros (e & ? & ?%elem_of_empty & _).
  - intros e X acc He IH Hall. destruct IH as (N & -> & HN); [intros e' ?; by apply Hall, elem_of_union_r|].
    destruct (Hall e) as [rx Hrx]; [by apply elem_of_union_l, elem_of_singleton|]. rewrite Hrx. eexists. split; [done|].
    intros y. rewrite elem_of_union, HN. split.
    + intros [(e' & rx' & ? & ? & ?)|Hy].
      * exists e', rx'. split_and!; [by apply elem_of_union_r|done..].
      * exists e, rx. split_and!; [by apply elem_of_union_l, elem_of_singleton|done..].
    + intros (e' & rx' & [->%elem_of_singleton|?]%elem_of_union & Hl & Hy).
      * right. by simplify_eq.
      * left. eauto.
Qed.

Lemma neighbors_spec s x :
  Inv s →
  match neighbors s x with
  | inr N => x ∈ species s ∧ ∀ y, y ∈ N ↔ nbr s x y
  | inl QKeyError => x ∉ species s
  | inl _ => False
  end.
Proof.
  intros HI. unfold neighbors. destruct (decide (x ∈ species s)) as [Hx|Hx]; [|done].
  destruct (neighbors_raw_fold s (default ∅ (s_out s !! x))) as (N & HN & Hy).
  { intros e. rewrite (inv_out _ HI), elem_of_consumers. intros (rx & -> & _). eauto. }
  unfold neighbors_raw. rewrite HN. split; [done|]. intros y. rewrite Hy. unfold nbr.
  setoid_rewrite (inv_out _ HI). setoid_rewrite elem_of_consumers. split.
  - intros (e & rx & (rx' & ? & ?) & ? & ?). simplify_eq. eauto.
  - intros (e & rx & ? & ? & ?). exists e, rx. eauto.
Qed.

(** neighbours are present species *)
Lemma nbr_species s x y : Inv s → nbr s x y → y ∈ species s.
Proof.
  intros HI (e & rx & He & _ & Hy). apply (inv_occ _ HI). exists e, rx. split; [done|].
  unfold rxn_species. set_solver.
Qed.

(** * 4. incidence_matrix(sparse=False) *)

Lemma dense_spec s :
  Inv s →
  dense s = Some ((λ x, dense_entry s x <$> edge_ids_sorted s) <$> species_list s).
Proof.
  intros HI. unfold dense. rewrite decide_True; [done|].
  intros e rx He x Hx. apply (inv_occ _ HI). by exists e, rx.
Qed.

(** the entry in row [x], column [e] of the dense matrix *)
Lemma dense_lookup s m i j x e :
  dense s = Some m → species_list s !! i = Some x → edge_ids_sorted s !! j = Some e →
  m !! i ≫= (.!! j) = Some (dense_entry s x e).
Proof.
  unfold dense. destruct (decide _); [|done]. intros [= <-] Hi Hj.
  rewrite list_lookup_fmap, Hi. cbn. by rewrite list_lookup_fmap, Hj.
Qed.

(** dense and sparse agree: an entry listed by the sparse mapping has the same
    value in the dense matrix, every other entry of the dense matrix is 0 *)
Lemma dense_entry_sparse s x e v : (x, e, v) ∈ incidence s → dense_entry s x e = v.
Proof. intros (rx & He & _ & ->)%incidence_spec. unfold dense_entry. by rewrite He. Qed.

Lemma dense_entry_zero s x e : (∀ v, (x, e, v) ∉ incidence s) → dense_entry s x e = 0%Z.
Proof.
  intros Hno. unfold dense_entry. destruct (edges s !! e) as [rx|] eqn:He; [|done].
  destruct (decide (x ∈ rxn_species rx)) as [Hx|Hx].
  - destruct (Hno (coef (r_rhs rx) x - coef (r_lhs rx) x)%Z). apply incidence_spec. eauto.
  - assert (r_lhs rx !! x = None) as Hl by (apply not_elem_of_dom; unfold rxn_species in Hx; set_solver).
    assert (r_rhs rx !! x = None) as Hr by (apply not_elem_of_dom; unfold rxn_species in Hx; set_solver).
    unfold coef. by rewrite Hl, Hr.
Qed.

Lemma dense_entry_meaning s x e rx :
  edges s !! e = Some rx → dense_entry s x e = (coef (r_rhs rx) x - coef (r_lhs rx) x)%Z.
Proof. intros He. unfold dense_entry. by rewrite He. Qed.

(** * 5. paths: every reported path is a simple chain of neighbours from the
    source to the target within the hop limit *)

Inductive rpath (s : net) (src : string) : list string → Prop :=
| rp_src : rpath s src [src]
| rp_step n last rp : rpath s src (last :: rp) → nbr s last n → n ∉ last :: rp →
                      rpath s src (n :: last :: rp).

Lemma extend_sound s src rp nxt :
  Inv s → rpath s src rp → extend s rp = Some nxt →
  Forall (λ rp', rpath s src rp' ∧ length rp' = S (length rp)) nxt.
Proof.
  intros HI Hrp. unfold extend. destruct rp as [|last rp]; [by inversion Hrp|].
  pose proof (neighbors_spec s last HI) as HN. destruct (neighbors s last) as [er|N]; [done|].
  destruct HN as [_ HN]. intros [= <-]. apply Forall_fmap, Forall_forall. intros n Hn.
  apply elem_of_list_filter in Hn as [Hnin Hn]. apply elem_of_ssort, elem_of_elements, HN in Hn.
  split; [by constructor|done].
Qed.

Lemma bfs_sound s src tgt : ∀ k level d out,
  Inv s → Forall (λ rp, rpath s src rp ∧ length rp = d) level →
  bfs k s tgt level = Some out →
  Forall (λ rp, rpath s src rp ∧ head rp = Some tgt ∧ (d ≤ length rp < d + k)%nat) out.
Proof.
  induction k as [|k IH]; intros level d out HI Hl; cbn [bfs]; [by intros [= <-]|].
  destruct (mapM _ _) as [nxt|] eqn:Hm; [|done].
  destruct (bfs k s tgt (concat nxt)) as [rest|] eqn:Hb; [|done]. intros [= <-].
  apply Forall_app. split.
  - apply Forall_forall. intros rp [Hh Hin]%elem_of_list_filter.
    rewrite Forall_forall in Hl. destruct (Hl rp Hin) as [? ?]. split_and!; [done|done|lia|lia].
  - apply (IH _ (S d)) in Hb; [|done|].
    + eapply Forall_impl; [exact Hb|]. intros rp (? & ? & ?). split_and!; [done|done|lia|lia].
    + apply Forall_concat. apply mapM_Some in Hm. rewrite Forall_forall. intros l Hin.
      apply elem_of_list_lookup in Hin as [i Hi].
      destruct (Forall2_lookup_r _ _ _ _ _ Hm Hi) as (rp & Hrp & Hext).
      apply elem_of_list_lookup_2, elem_of_list_filter in Hrp as [_ Hrp].
      rewrite Forall_forall in Hl. destruct (Hl rp Hrp) as [Hr <-].
      apply (extend_sound s src rp l HI Hr Hext).
Qed.

Lemma paths_sound s a b h m ps p :
  Inv s → paths s a b h m = inr ps → p ∈ ps →
  ∃ rp, p = reverse rp ∧ rpath s a rp ∧ head rp = Some b ∧ (Z.of_nat (length p) ≤ h + 1)%Z.
Proof.
  intros HI. unfold paths. destruct (decide _) as [[Ha Hb]|]; [|done].
  destruct (bfs _ s b [[a]]) as [out|] eqn:Hbfs; [|done]. intros [= <-] Hp.
  assert (Hin : p ∈ reverse <$> out).
  { destruct m as [m|]; [|done]. apply elem_of_take in Hp as (i & Hi & _). by eapply elem_of_list_lookup_2. }
  apply elem_of_list_fmap in Hin as (rp & -> & Hrp).
  eapply (bfs_sound s a b _ _ 1) in Hbfs; [|done|by repeat constructor].
  rewrite Forall_forall in Hbfs. destruct (Hbfs rp Hrp) as (H1 & H2 & H3).
  exists rp. split_and!; [done..|]. rewrite reverse_length.
  destruct (h <? 0)%Z eqn:Hh; [lia|]. apply Z.ltb_ge in Hh. lia.
Qed.

(** the chain read forwards *)
Lemma rpath_NoDup s src rp : rpath s src rp → NoDup rp.
Proof. induction 1; [apply NoDup_singleton|]. by constructor. Qed.
Lemma rpath_last s src rp : rpath s src rp → last rp = Some src.
Proof. induction 1; [done|]. by rewrite last_cons_cons in *. Qed.

Lemma rpath_meaning s src rp :
  rpath s src rp →
  NoDup rp ∧ last rp = Some src ∧
  ∀ i n prev, rp !! i = Some n → rp !! S i = Some prev →
    ∃ e rx, edges s !! e = Some rx ∧ prev ∈ dom (r_lhs rx) ∧ n ∈ dom (r_rhs rx).
Proof.
  intros H. split; [by eapply rpath_NoDup|]. split; [by eapply rpath_last|].
  induction H as [|n last rp H IH Hn Hnin]; intros i a b Ha Hb.
  - destruct i as [|i]; cbn in *; [done|]. by destruct i.
  - destruct i as [|i]; cbn in *.
    + simplify_eq. exact Hn.
    + by eapply IH.
Qed.

Lemma dense_full s :
  Inv s →
  ∃ m, dense s = Some m ∧ length m = length (species_list s) ∧
  (∀ i j x e, species_list s !! i = Some x → edge_ids_sorted s !! j = Some e →
     m !! i ≫= (.!! j) = Some (dense_entry s x e)) ∧
  (∀ x e rx, edges s !! e = Some rx → dense_entry s x e = (coef (r_rhs rx) x - coef (r_lhs rx) x)%Z) ∧
  (∀ x e v, (x, e, v) ∈ incidence s → dense_entry s x e = v) ∧
  (∀ x e, (∀ v, (x, e, v) ∉ incidence s) → dense_entry s x e = 0%Z).
Proof.
  intros HI. eexists. split; [by apply dense_spec|]. split; [by rewrite fmap_length|].
  split; [|split; [|split]].
  - intros i j x e Hi Hj. eapply dense_lookup; [by apply dense_spec|done..].
  - intros x e rx. apply dense_entry_meaning.
  - apply dense_entry_sparse.
  - apply dense_entry_zero.
Qed.
