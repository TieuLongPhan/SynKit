(** C06 — label predicates, the loop over an enumeration that all strategies
    share ([scan], left at the count [lim]), the exhaustive strategy and its result limits,
    and "the verified enumerator meets the VF2 contract".  Stdlib lists. *)
From Coq Require Import List NArith Bool Arith Lia Permutation SetoidList Relations.
From SK Require Import lib.LGraph lib.Mono lib.Reach lib.C01_GraphLemmas model.C06_Model lib.C06_Spec.
Import ListNotations.

(** ---------- label predicates ---------- *)
Lemma leqb_spec a b : leqb a b = true <-> a = b.
Proof.
  revert b. induction a as [|x a IH]; intros [|y b]; simpl; try (split; [discriminate|discriminate]); [tauto|].
  rewrite andb_true_iff, N.eqb_eq, IH. split; [intros [-> ->]; reflexivity|intros [= -> ->]; auto].
Qed.

Lemma nm_spec h p : nm h p = true <-> fst h = fst p /\ (snd p <= snd h)%N.
Proof. unfold nm. rewrite andb_true_iff, leqb_spec, N.leb_le. tauto. Qed.

Lemma em_spec h p : em h p = true <-> h = p.
Proof. apply leqb_spec. Qed.

Lemma is_mono_on_meaning (H P : graph) (hn pn : list N) (m : mapping) :
  is_mono_on H P hn pn m <->
  NoDup (map fst m) /\ (forall p, In p (map fst m) <-> In p pn) /\
  NoDup (map snd m) /\
  (forall p h, In (p, h) m ->
     In h hn /\ fst (lab H h) = fst (lab P p) /\ (snd (lab P p) <= snd (lab H h))%N) /\
  (forall p h p' h' b, In (p, h) m -> In (p', h') m -> LGraph.adj P p p' = Some b ->
     LGraph.adj H h h' = Some b).
Proof.
  unfold is_mono_on. split; intros (A & B & C & D & E); (split; [exact A|split; [exact B|split; [exact C|split]]]).
  - intros p h I. destruct (D p h I) as [I' Hn]. apply nm_spec in Hn. tauto.
  - intros p h p' h' b I I' Eb. destruct (E p h p' h' b I I' Eb) as (b' & Eb' & Hb). apply em_spec in Hb. congruence.
  - intros p h I. destruct (D p h I) as (I' & Hn). split; [exact I'|]. apply nm_spec. exact Hn.
  - intros p h p' h' b I I' Eb. exists b. split; [eauto|]. apply em_spec. reflexivity.
Qed.

Lemma nodupb_spec l : nodupb l = true -> NoDup l.
Proof.
  induction l as [|x l IH]; simpl; intros E; [constructor|].
  apply andb_prop in E. destruct E as [E1 E2]. constructor; auto.
  rewrite <- LGraph.mem_spec. destruct (LGraph.mem x l); [discriminate|congruence].
Qed.

(** ---------- limits ---------- *)
Definition guard {X} (thr : N) (r : list X) : list X := if (thr <? lenN r)%N then [] else r.

Lemma guard_nil {X} thr : @guard X thr [] = [].
Proof. unfold guard. destruct (thr <? lenN [])%N; reflexivity. Qed.

Lemma lenN_app {X} (a b : list X) : lenN (a ++ b) = (lenN a + lenN b)%N.
Proof. unfold lenN. rewrite app_length. lia. Qed.
Lemma lenN_cons {X} (x : X) a : lenN (x :: a) = N.succ (lenN a).
Proof. unfold lenN. simpl. lia. Qed.
Lemma lenN_rev {X} (a : list X) : lenN (rev a) = lenN a.
Proof. unfold lenN. rewrite rev_length. reflexivity. Qed.

Lemma capped_spec maxr n : capped maxr n = true <-> (0 < maxr /\ maxr <= n)%N.
Proof. unfold capped. rewrite andb_true_iff, N.ltb_lt, N.leb_le. tauto. Qed.
Lemma capped_false maxr n : capped maxr n = false <-> (maxr = 0 \/ n < maxr)%N.
Proof.
  rewrite <- not_true_iff_false, capped_spec. lia.
Qed.

(** every loop over an enumeration is left at the first count [n] with [stop maxr thr n]: at [lim maxr thr] *)
Definition lim (maxr thr : N) : N := if (maxr =? 0)%N then N.succ thr else N.min maxr (N.succ thr).

Lemma stop_spec maxr thr n : stop maxr thr n = (lim maxr thr <=? n)%N.
Proof.
  apply Bool.eq_iff_eq_true. unfold stop. rewrite orb_true_iff, capped_spec, N.ltb_lt, N.leb_le.
  unfold lim. destruct (N.eqb_spec maxr 0); lia.
Qed.

Lemma lim_le maxr thr : (lim maxr thr <= N.succ thr)%N.
Proof. unfold lim. destruct (maxr =? 0)%N; lia. Qed.

Lemma lim_pos maxr thr : (0 < lim maxr thr)%N.
Proof. unfold lim. destruct (N.eqb_spec maxr 0); lia. Qed.

Lemma map_fst_combine' {X Y} (ps : list X) : forall (hs : list Y), length hs = length ps -> map fst (combine ps hs) = ps.
Proof.
  induction ps as [|p ps IH]; intros [|h hs] Hl; simpl in *; try discriminate; auto.
  f_equal. apply IH. lia.
Qed.

Lemma limit_unfold {X} maxr thr (U : list X) :
  limit maxr thr U =
  let k := if (maxr =? 0)%N then lenN U else N.min maxr (lenN U) in
  if (thr <? k)%N then [] else firstn (N.to_nat k) U.
Proof. reflexivity. Qed.

(** the loop the strategies share: collect the items of an enumeration; leave with the list as soon as it is
    [capped], with nothing as soon as it is longer than the threshold *)
Fixpoint scan {X} (cap thr : N) (it acc : list X) (n : N) : option (list X) :=
  match it with
  | [] => Some (rev acc)
  | x :: it' =>
      let n' := N.succ n in
      if capped cap n' then Some (rev (x :: acc)) else if (thr <? n')%N then None else scan cap thr it' (x :: acc) n'
  end.

Lemma all_loop_scan maxr thr : forall it acc n,
  all_loop maxr thr it acc n = match scan maxr thr it acc n with Some l => l | None => [] end.
Proof.
  induction it as [|m it IH]; intros acc n; cbn [all_loop scan]; [reflexivity|].
  destruct (capped maxr (N.succ n)); [reflexivity|]. destruct (thr <? N.succ n)%N; [reflexivity|apply IH].
Qed.

(** it reads the first [lim] items, and gives them up when that many exceed the threshold without being capped *)
Definition scan_result {X} (cap thr : N) (U : list X) : option (list X) :=
  let V := firstn (N.to_nat (lim cap thr)) U in
  if (thr <? lenN V)%N && negb (capped cap (lenN V)) then None else Some V.

Lemma scan_spec {X} cap thr : forall (it acc : list X) n, n = lenN acc -> (n < lim cap thr)%N ->
  scan cap thr it acc n = scan_result cap thr (rev acc ++ it).
Proof.
  assert (EV : forall (it acc : list X), (lenN acc <= lim cap thr)%N ->
    firstn (N.to_nat (lim cap thr)) (rev acc ++ it) = rev acc ++ firstn (N.to_nat (lim cap thr - lenN acc)) it).
  { intros it acc Hle. rewrite firstn_app, rev_length, firstn_all2 by (rewrite rev_length; unfold lenN in Hle; lia).
    f_equal. f_equal. unfold lenN. lia. }
  induction it as [|x it IH]; intros acc n Hn Hlt; cbn [scan].
  - unfold scan_result. rewrite EV, firstn_nil, app_nil_r, lenN_rev, <- Hn by lia.
    pose proof (lim_le cap thr). destruct (N.ltb_spec thr n); [lia|reflexivity].
  - pose proof (stop_spec cap thr (N.succ n)) as Hs. unfold stop in Hs.
    assert (Ex : rev acc ++ x :: it = rev (x :: acc) ++ it) by (cbn [rev]; rewrite <- app_assoc; reflexivity).
    assert (Hn' : N.succ n = lenN (x :: acc)) by (rewrite lenN_cons, Hn; reflexivity).
    destruct (N.leb_spec (lim cap thr) (N.succ n)) as [Hle|Hgt].
    + unfold scan_result. rewrite Ex, EV, <- Hn' by lia.
      replace (N.to_nat (lim cap thr - N.succ n)) with 0 by lia.
      cbn [firstn]. rewrite app_nil_r, lenN_rev, <- Hn'.
      destruct (capped cap (N.succ n)), (thr <? N.succ n)%N; try reflexivity. discriminate.
    + destruct (capped cap (N.succ n)), (thr <? N.succ n)%N; try discriminate. rewrite Ex. apply IH; assumption.
Qed.

Lemma scan_result_nil {X} cap thr : @scan_result X cap thr [] = Some [].
Proof. unfold scan_result. rewrite firstn_nil. destruct thr; reflexivity. Qed.

Lemma scan_result_some {X} cap thr (U V : list X) :
  scan_result cap thr U = Some V -> V = firstn (N.to_nat (lim cap thr)) U.
Proof. unfold scan_result. cbv zeta. destruct (_ && _); [discriminate|]. intros [= <-]. reflexivity. Qed.

Lemma scan_result_none {X} cap thr (U : list X) : scan_result cap thr U = None -> (thr < lenN U)%N.
Proof.
  unfold scan_result. cbv zeta.
  destruct (N.ltb_spec thr (lenN (firstn (N.to_nat (lim cap thr)) U))) as [Hlt|]; [|discriminate].
  intros _. unfold lenN in *. rewrite firstn_length in Hlt. lia.
Qed.

Lemma scan_result_map {X Y} (f : X -> Y) cap thr U :
  scan_result cap thr (map f U) = option_map (map f) (scan_result cap thr U).
Proof.
  unfold scan_result. cbv zeta. rewrite firstn_map. unfold lenN. rewrite map_length.
  destruct (_ && _); reflexivity.
Qed.

Lemma scan_result_nocap {X} thr (L : list X) :
  scan_result 0 thr L = if (thr <? lenN L)%N then None else Some L.
Proof.
  unfold scan_result, lim, lenN. cbn [N.eqb capped N.ltb N.compare andb negb]. rewrite andb_true_r, firstn_length.
  destruct (N.ltb_spec thr (N.of_nat (length L))), (N.ltb_spec thr (N.of_nat (Nat.min (N.to_nat (N.succ thr)) (length L))));
    try lia; [reflexivity|]. rewrite firstn_all2 by lia. reflexivity.
Qed.

Lemma scan_all {X} cap thr (U : list X) : scan cap thr U [] 0 = scan_result cap thr U.
Proof. apply (scan_spec cap thr U [] 0%N eq_refl). apply lim_pos. Qed.

Lemma guard_firstn_lim {X} maxr thr (U : list X) :
  guard thr (firstn (N.to_nat (lim maxr thr)) U) = limit maxr thr U.
Proof.
  unfold guard, limit, lim, lenN. rewrite firstn_length.
  destruct (N.eqb_spec maxr 0) as [->|Hne].
  - destruct (N.ltb_spec thr (N.of_nat (Nat.min (N.to_nat (N.succ thr)) (length U)))),
             (N.ltb_spec thr (N.of_nat (length U))); try lia; auto.
    rewrite Nat2N.id. rewrite firstn_all. apply firstn_all2. lia.
  - destruct (N.ltb_spec thr (N.of_nat (Nat.min (N.to_nat (N.min maxr (N.succ thr))) (length U)))),
             (N.ltb_spec thr (N.min maxr (N.of_nat (length U)))); try lia; auto.
    destruct (Nat.le_ge_cases (length U) (N.to_nat maxr)).
    + rewrite !firstn_all2 by lia. reflexivity.
    + f_equal. lia.
Qed.

(** after the final guard only the prefix counts *)
Lemma guard_scan_result {X} maxr thr (U : list X) :
  guard thr (match scan_result maxr thr U with Some l => l | None => [] end) = limit maxr thr U.
Proof.
  rewrite <- guard_firstn_lim. unfold scan_result. cbv zeta.
  destruct (thr <? lenN (firstn (N.to_nat (lim maxr thr)) U))%N eqn:E; [|reflexivity].
  destruct (capped maxr _); cbn [andb negb]; [reflexivity|]. rewrite guard_nil. unfold guard. rewrite E. reflexivity.
Qed.

Lemma limit_none {X} thr (U : list X) : (lenN U <= thr)%N -> limit 0 thr U = U.
Proof.
  intros Hle. unfold limit. simpl. destruct (N.ltb_spec thr (lenN U)); [lia|].
  unfold lenN. rewrite Nat2N.id. apply firstn_all.
Qed.

Section Oracle.
Variable enum : list N -> list N -> list mapping.

Lemma guard_find_all maxr thr H P :
  guard thr (find_all enum maxr thr H P) = limit maxr thr (enum (node_ids H) (node_ids P)).
Proof. unfold find_all. rewrite all_loop_scan, scan_all. apply guard_scan_result. Qed.

(** the public entry point with the exhaustive strategy: exactly "truncate, or empty past the threshold" *)
Lemma find_all_limits maxr thr strict H P :
  find enum (Cfg 0 maxr thr strict false) H P = limit maxr thr (enum (node_ids H) (node_ids P)).
Proof. apply guard_find_all. Qed.

Lemma find_all_unlimited T strict H P :
  (lenN (enum (node_ids H) (node_ids P)) <= T)%N ->
  find enum (Cfg 0 0 T strict false) H P = enum (node_ids H) (node_ids P).
Proof. intros Hle. rewrite find_all_limits. apply limit_none. exact Hle. Qed.

(** exhaustive strategy, no limits: sound, complete, duplicate-free *)
Lemma all_exact T strict H P :
  vf2_contract enum H P (node_ids H) (node_ids P) ->
  (lenN (enum (node_ids H) (node_ids P)) <= T)%N ->
  let R := find enum (Cfg 0 0 T strict false) H P in
  (forall m, In m R -> is_mono H P m) /\
  (forall m, is_mono H P m -> exists m', In m' R /\ Permutation m m') /\
  NoDupA (@Permutation (N * N)) R.
Proof.
  intros Hc Hle. simpl. rewrite find_all_unlimited by exact Hle. exact Hc.
Qed.
End Oracle.

(** ---------- the verified enumerator meets the contract ---------- *)
(** a total map on [pn] has a rearrangement of the enumerator's shape *)
Lemma canonical_form (pn : list N) (Hpn : NoDup pn) (m : mapping) : NoDup (map fst m) -> (forall p, In p (map fst m) <-> In p pn) ->
  exists hs, length hs = length pn /\ Permutation m (rev (combine pn hs)).
Proof.
  revert m. induction pn as [|p ps IH]; intros m Hnd Hdom.
  - exists []. split; [reflexivity|]. destruct m as [|[a b] m]; [constructor|].
    exfalso. apply (Hdom a). left. reflexivity.
  - inversion Hpn as [|? ? Hnp Hps]; subst.
    assert (Ip : In p (map fst m)) by (apply Hdom; left; reflexivity).
    apply in_map_iff in Ip. destruct Ip as ([p0 h] & E & I). simpl in E. subst p0.
    apply in_split in I. destruct I as (l1 & l2 & ->).
    assert (Hperm : Permutation (l1 ++ (p, h) :: l2) ((p, h) :: l1 ++ l2)) by (apply Permutation_sym, Permutation_middle).
    assert (Hnd' : NoDup (map fst ((p, h) :: l1 ++ l2))).
    { eapply Permutation_NoDup; [apply Permutation_map; exact Hperm|exact Hnd]. }
    simpl in Hnd'. inversion Hnd' as [|? ? Hnot Hnd'']; subst.
    destruct (IH Hps (l1 ++ l2) Hnd'') as (hs & Hl & Hp').
    + intros q. split.
      * intros Iq. assert (H0 : In q (map fst (l1 ++ (p, h) :: l2))).
        { eapply Permutation_in; [apply Permutation_map, Permutation_sym; exact Hperm|]. simpl. right. exact Iq. }
        apply Hdom in H0. destruct H0 as [<-|]; [contradiction|assumption].
      * intros Iq. assert (H0 : In q (map fst ((p, h) :: l1 ++ l2))).
        { eapply Permutation_in; [apply Permutation_map; exact Hperm|]. apply Hdom. right. exact Iq. }
        simpl in H0. destruct H0 as [<-|]; [contradiction|assumption].
    + exists (h :: hs). split; [simpl; lia|]. simpl.
      eapply Permutation_trans; [exact Hperm|].
      eapply Permutation_trans; [|apply Permutation_cons_append]. constructor. exact Hp'.
Qed.

Lemma rev_combine_inj (pn : list N) (Hpn : NoDup pn) (hs hs' : list N) : length hs = length pn -> length hs' = length pn ->
  Permutation (rev (combine pn hs)) (rev (combine pn hs')) -> hs = hs'.
Proof.
  intros Hl Hl' Hp.
  assert (Hp' : Permutation (combine pn hs) (combine pn hs')).
  { eapply Permutation_trans; [apply Permutation_rev|]. eapply Permutation_trans; [exact Hp|]. apply Permutation_sym, Permutation_rev. }
  clear Hp. revert hs hs' Hl Hl' Hp'. induction pn as [|p ps IH]; intros [|h hs] [|h' hs'] Hl Hl' Hp; simpl in *; try discriminate; auto.
  inversion Hpn as [|? ? Hnp Hps]; subst.
  assert (I : In (p, h) ((p, h') :: combine ps hs')) by (eapply Permutation_in; [exact Hp|left; reflexivity]).
  destruct I as [E|I].
  - inversion E; subst. f_equal. apply IH; auto; try lia. eapply Permutation_cons_inv. exact Hp.
  - exfalso. apply Hnp. apply in_combine_l in I. exact I.
Qed.

Lemma no_self_loop (g : graph) u : gwf g -> LGraph.adj g u u = None.
Proof.
  intros [_ Hg]. destruct (LGraph.adj g u u) as [x|] eqn:E; [|reflexivity].
  apply find_edge_some_in in E. destruct E as [E|E]; apply Hg in E; destruct E as (_ & _ & E); congruence.
Qed.

Section Enum.
Variables H P : graph.
Hypothesis HwfH : gwf H.
Hypothesis HwfP : gwf P.

Section OnLists.
Variables hn pn : list N.
Hypothesis Hhn : NoDup hn.
Hypothesis Hpn : NoDup pn.

Let V := valid hn (lab P) (lab H) (LGraph.adj P) (LGraph.adj H) nm em false.
Let EOK := edge_ok (LGraph.adj P) (LGraph.adj H) em false.

Lemma edge_ok_spec p h p' h' :
  EOK p h (p', h') = true <->
  (forall b, LGraph.adj P p p' = Some b -> exists b', LGraph.adj H h h' = Some b' /\ em b' b = true).
Proof.
  unfold EOK, edge_ok. simpl.
  destruct (LGraph.adj P p p') as [b|], (LGraph.adj H h h') as [b'|]; simpl.
  - split.
    + intros E b0 [= <-]. eauto.
    + intros Hx. destruct (Hx b eq_refl) as (b0 & [= <-] & E). exact E.
  - split; [discriminate|]. intros Hx. destruct (Hx b eq_refl) as (b0 & E & _). discriminate.
  - split; [intros _ b0; discriminate|reflexivity].
  - split; [intros _ b0; discriminate|reflexivity].
Qed.

(** pointwise reading of [valid] (both directions) *)
Lemma valid_iff m :
  V m <->
  NoDup (map snd m) /\
  (forall p h, In (p, h) m -> In h hn /\ nm (lab H h) (lab P p) = true) /\
  (forall l1 p h l2 p' h' l3, m = l1 ++ (p, h) :: l2 ++ (p', h') :: l3 -> EOK p h (p', h') = true).
Proof.
  split.
  - intros Hv. apply valid_pointwise in Hv.
    destruct Hv as (A & B & C). auto.
  - induction m as [|[p h] m IH]; intros (Hnd & Hlab & Hedge); [constructor|].
    simpl in Hnd. inversion Hnd as [|? ? Hnot Hnd']; subst.
    constructor.
    + apply IH. split; [exact Hnd'|]. split.
      * intros p0 h0 I. apply Hlab. right. exact I.
      * intros l1 p0 h0 l2 p' h' l3 E. apply (Hedge ((p, h) :: l1) p0 h0 l2 p' h' l3). rewrite E. reflexivity.
    + apply (Hlab p h). left. reflexivity.
    + unfold ok. rewrite !andb_true_iff. split; [split|].
      * apply (Hlab p h). left. reflexivity.
      * apply fresh_spec. exact Hnot.
      * apply forallb_forall. intros [p' h'] I. apply in_split in I. destruct I as (l2 & l3 & ->).
        apply (Hedge [] p h l2 p' h' l3). reflexivity.
Qed.

Lemma is_mono_on_perm m m' : Permutation m m' -> is_mono_on H P hn pn m -> is_mono_on H P hn pn m'.
Proof.
  intros Hp (A & B & C & D & E).
  assert (Hin : forall x, In x m' -> In x m) by (intros x; apply Permutation_in; apply Permutation_sym; exact Hp).
  split; [|split; [|split; [|split]]].
  - eapply Permutation_NoDup; [apply Permutation_map; exact Hp|exact A].
  - intros p. rewrite <- B. split; apply Permutation_in; apply Permutation_map; [apply Permutation_sym|]; exact Hp.
  - eapply Permutation_NoDup; [apply Permutation_map; exact Hp|exact C].
  - intros p h I. apply D. auto.
  - intros p h p' h' b I I'. apply E; auto.
Qed.

Lemma valid_is_mono_on hs : length hs = length pn ->
  V (rev (combine pn hs)) -> is_mono_on H P hn pn (rev (combine pn hs)).
Proof.
  intros Hl Hv. apply valid_iff in Hv. destruct Hv as (Hnd & Hlab & Hedge).
  assert (Hfst : map fst (rev (combine pn hs)) = rev pn).
  { rewrite map_rev. f_equal. apply map_fst_combine'. exact Hl. }
  split; [|split; [|split; [|split]]].
  - rewrite Hfst. apply NoDup_rev. exact Hpn.
  - intros p. rewrite Hfst, <- in_rev. tauto.
  - exact Hnd.
  - exact Hlab.
  - intros p h p' h' b I I' Eb.
    destruct (N.eq_dec p p') as [->|Hne].
    { rewrite (no_self_loop P p' HwfP) in Eb. discriminate. }
    (* the two pairs sit at different positions of the list *)
    apply in_split in I. destruct I as (l1 & l2 & E1).
    rewrite E1 in I'. apply in_app_or in I'. destruct I' as [I'|[I'|I']]; [| congruence |].
    + apply in_split in I'. destruct I' as (l3 & l4 & ->).
      assert (Hx := Hedge l3 p' h' l4 p h l2). rewrite <- app_assoc in E1. simpl in E1. specialize (Hx E1).
      unfold EOK in Hx. rewrite (edge_ok_sym _ _ em false (LGraph.adj_sym P) (LGraph.adj_sym H)) in Hx. fold EOK in Hx.
      exact (proj1 (edge_ok_spec p h p' h') Hx b Eb).
    + apply in_split in I'. destruct I' as (l3 & l4 & ->).
      assert (Hx := Hedge l1 p h l3 p' h' l4 E1). exact (proj1 (edge_ok_spec p h p' h') Hx b Eb).
Qed.

Lemma is_mono_on_valid m : is_mono_on H P hn pn m -> V m.
Proof.
  intros (A & B & C & D & E). apply valid_iff. split; [exact C|]. split; [exact D|].
  intros l1 p h l2 p' h' l3 ->. apply edge_ok_spec. intros b Eb.
  apply (E p h p' h' b); auto; apply in_or_app; right; [left; reflexivity|].
  right. apply in_or_app. right. left. reflexivity.
Qed.

Theorem monos_on_contract : vf2_contract (monos_on H P) H P hn pn.
Proof.
  unfold vf2_contract, monos_on. split; [|split].
  - intros m I. apply monos_only_such in I. destruct I as (hs & Hl & -> & Hv).
    apply valid_is_mono_on; auto.
  - intros m Hm. destruct Hm as (A & B & C) eqn:Em. clear Em.
    destruct (canonical_form pn Hpn m A B) as (hs & Hl & Hp).
    exists (rev (combine pn hs)). split; [|exact Hp].
    apply (monos_spec pn hn (lab P) (lab H) (LGraph.adj P) (LGraph.adj H) nm em false); auto.
    apply is_mono_on_valid. eapply is_mono_on_perm; [exact Hp|]. split; auto.
  - (* NoDup + canonical shape => NoDupA *)
    pose proof (monos_nodup pn (lab P) (lab H) (LGraph.adj P) (LGraph.adj H) nm em false Hhn) as Hnd.
    pose proof (fun m => monos_only_such pn hn (lab P) (lab H) (LGraph.adj P) (LGraph.adj H) nm em false m) as Hshape.
    revert Hnd Hshape.
    generalize (monos pn hn (lab P) (lab H) (LGraph.adj P) (LGraph.adj H) nm em false) as L.
    induction L as [|m L IH]; intros Hnd Hshape; constructor.
    + intros HA. apply InA_alt in HA. destruct HA as (m' & Hp & I').
      inversion Hnd as [|? ? Hnot _]; subst. apply Hnot.
      destruct (Hshape m (or_introl eq_refl)) as (hs & Hl & -> & _).
      destruct (Hshape m' (or_intror I')) as (hs' & Hl' & -> & _).
      rewrite (rev_combine_inj pn Hpn hs hs' Hl Hl' Hp). exact I'.
    + inversion Hnd; subst. apply IH; auto. intros m' I'. apply Hshape. right. exact I'.
Qed.
End OnLists.
End Enum.
