(** C04 — the general regeneration lemma: a template that DESCRIBES the pair (A, B) (its tuples and bond orders are
    those of A and B, and it contains every atom and every bond on which A and B differ), glued on A along a mapping
    under which it fits and which reaches those atoms and bonds, yields an ITS whose decomposition is (A, B); the
    identity and its compositions with symmetries of the rule are such mappings (proof/C04_Any.v).  Uses the glue
    theorems of proof/C03_*.v. *)
From Coq Require Import List NArith ZArith Bool Lia Permutation.
From SK Require Import lib.LGraph model.C03_Model model.C04_Model proof.C03_Proof proof.C03_Glue proof.C03_Backward.
Import ListNotations.
Local Open Scope Z_scope.

Lemma id_map_fst ns : map fst (id_map ns) = ns.
Proof. unfold id_map. rewrite map_map. simpl. apply map_id. Qed.
Lemma id_map_snd ns : map snd (id_map ns) = ns.
Proof. unfold id_map. rewrite map_map. simpl. apply map_id. Qed.
(** the mapping that is the graph of a function [s] on the listed atoms *)
Lemma mget_graph (s : N -> N) ns n : In n ns -> mget (map (fun k => (k, s k)) ns) n = Some (s n).
Proof.
  unfold mget. induction ns as [|k r IH]; simpl; [intros []|].
  destruct (N.eqb_spec n k) as [->|Hne]; [reflexivity|]. intros [E|I]; [congruence|auto].
Qed.
Lemma mget_graph_inv (s : N -> N) ns n h : mget (map (fun k => (k, s k)) ns) n = Some h -> h = s n /\ In n ns.
Proof.
  unfold mget. induction ns as [|k r IH]; simpl; [discriminate|].
  destruct (N.eqb_spec n k) as [->|Hne].
  - intros [= <-]. auto.
  - intros H. destruct (IH H). auto.
Qed.
Lemma mget_id ns n : In n ns -> mget (id_map ns) n = Some n.
Proof. unfold id_map. exact (mget_graph (fun k => k) ns n). Qed.
Lemma mget_id_inv ns n h : mget (id_map ns) n = Some h -> h = n /\ In n ns.
Proof. unfold id_map. exact (mget_graph_inv (fun k => k) ns n h). Qed.

Lemma mget_in_nodup (m : mapping) p h : NoDup (map fst m) -> In (p, h) m -> mget m p = Some h.
Proof. intros Hnd I. unfold mget. apply assoc_nodup_in; assumption. Qed.
Lemma in_snd_mget (m : mapping) h : NoDup (map fst m) -> In h (map snd m) -> exists p, mget m p = Some h.
Proof.
  intros Hnd I. apply in_map_iff in I. destruct I as ([p h'] & E & I). simpl in E; subst. exists p. apply mget_in_nodup; assumption.
Qed.
Lemma peq_elim a b u v : peq a b u v = true -> (a = u /\ b = v) \/ (a = v /\ b = u).
Proof.
  unfold peq. intros H. apply orb_prop in H. destruct H as [H|H]; apply andb_prop in H; destruct H as [H1 H2];
    apply N.eqb_eq in H1; apply N.eqb_eq in H2; auto.
Qed.
Lemma mem_false x l : ~ In x l -> mem x l = false.
Proof. intros H. destruct (mem x l) eqn:E; [apply mem_spec in E; contradiction|reflexivity]. Qed.
Lemma forallb_elim {X} (f : X -> bool) l x : forallb f l = true -> In x l -> f x = true.
Proof. intros H. exact (proj1 (forallb_forall f l) H x). Qed.
Lemma in_filter_notmem (R l : list N) k : In k (filter (fun n => negb (mem n R)) l) <-> In k l /\ ~ In k R.
Proof.
  rewrite filter_In. split; intros [I K]; (split; [exact I|]).
  - apply negb_true_iff in K. intros J. apply mem_spec in J. congruence.
  - rewrite (mem_false k R K). reflexivity.
Qed.
Lemma NoDup_nodupb l : NoDup l -> nodupb l = true.
Proof.
  induction l as [|x r IH]; simpl; [reflexivity|]. intros H. inversion H; subst.
  apply andb_true_intro; split; [|auto]. apply negb_true_iff. destruct (mem x r) eqn:E; [|reflexivity].
  apply mem_spec in E. contradiction.
Qed.

Lemma label_in {V B} (g : lgraph V B) n a : NoDup (node_ids g) -> In (n, a) (gnodes g) -> label g n = Some a.
Proof. intros H I. unfold label. apply assoc_nodup_in; assumption. Qed.
Lemma label_some_in {V B} (g : lgraph V B) n a : label g n = Some a -> In n (node_ids g).
Proof. intros H. unfold label in H. apply assoc_in in H. unfold node_ids. change n with (fst (n, a)). apply in_map. exact H. Qed.
Lemma label_none {V B} (g : lgraph V B) n : label g n = None -> ~ In n (node_ids g).
Proof.
  unfold label, node_ids. induction (gnodes g) as [|[k v] r IH]; simpl; [tauto|].
  destruct (N.eqb_spec n k); [discriminate|]. intros H [E|I]; [congruence|]. exact (IH H I).
Qed.
Lemma in_ids_label {V B} (g : lgraph V B) n : In n (node_ids g) -> exists a, label g n = Some a.
Proof. intros I. destruct (label g n) eqn:E; [eauto|]. exfalso. exact (label_none g n E I). Qed.

Lemma simple_in_find {B} (es : list (N * N * B)) u v x : simpleP (pairs es) -> In (u, v, x) es -> find_edge u v es = Some x.
Proof.
  induction es as [|[[p q] y] r IH]; simpl; [intros _ []|]. intros (Hne & Hr & Hs) [E|I].
  - inversion E; subst. rewrite !N.eqb_refl. reflexivity.
  - change ((N.eqb p u && N.eqb q v) || (N.eqb p v && N.eqb q u)) with (peq p q u v).
    assert (Hp : peq u v p q = false).
    { apply Hr. unfold pairs. change (u, v) with (fst (u, v, x)). apply in_map. exact I. }
    rewrite peq_swap, Hp. apply IH; assumption.
Qed.
Lemma in_find_some {B} (es : list (N * N * B)) a b u v x : In (u, v, x) es -> peq u v a b = true -> exists y, find_edge a b es = Some y.
Proof.
  induction es as [|[[p q] y] r IH]; simpl; [intros []|]. intros [E|I] Hp.
  - inversion E; subst. change ((N.eqb u a && N.eqb v b) || (N.eqb u b && N.eqb v a)) with (peq u v a b). rewrite Hp. eauto.
  - destruct ((N.eqb p a && N.eqb q b) || (N.eqb p b && N.eqb q a)); eauto.
Qed.

(** * bond orders of a well-formed molecule graph *)
Lemma host_simple A : wf_hostb A = true -> simpleP (pairs (gedges A)).
Proof.
  intros H. apply simpleP_of_b. unfold wf_hostb in H. apply andb_prop in H. destruct H as [H _].
  apply andb_prop in H. destruct H as [_ H]. exact H.
Qed.
Lemma order_in_pos A a b o : wf_hostb A = true -> adj A a b = Some o -> order_in A a b = o /\ 0 < o.
Proof. intros H E. unfold order_in. rewrite E. split; [reflexivity|]. exact (wf_host_pos A a b o H E). Qed.
Lemma order_in_bond A a b : wf_hostb A = true ->
  (if 0 <? order_in A a b then Some (order_in A a b) else None) = adj A a b.
Proof.
  intros H. unfold order_in. destruct (adj A a b) as [o|] eqn:E; [|reflexivity].
  pose proof (wf_host_pos A a b o H E). destruct (Z.ltb_spec 0 o); [reflexivity|lia].
Qed.
Lemma order_in_nonneg A a b : wf_hostb A = true -> 0 <= order_in A a b.
Proof.
  intros H. unfold order_in. destruct (adj A a b) as [o|] eqn:E; [|lia]. pose proof (wf_host_pos A a b o H E). lia.
Qed.
Lemma order_in_eq_adj A B a b : wf_hostb A = true -> wf_hostb B = true ->
  order_in A a b = order_in B a b -> adj A a b = adj B a b.
Proof. intros HA HB E. rewrite <- (order_in_bond A a b HA), <- (order_in_bond B a b HB), E. reflexivity. Qed.
Lemma order_in_peq (A : hostg) a b u v : peq a b u v = true -> order_in A a b = order_in A u v.
Proof. intros H. unfold order_in, adj. rewrite (find_edge_peq (gedges A) a b u v H). reflexivity. Qed.

(** * deciding equality of molecule graphs: completeness of [mol_eqb] *)
Lemma sel3_eqb_refl x : sel3_eqb x x = true.
Proof. unfold sel3_eqb. rewrite N.eqb_refl, !Z.eqb_refl. reflexivity. Qed.
Lemma sel3_eqb_eq x y : sel3_eqb x y = true -> x = y.
Proof.
  destruct x as [[e h] c], y as [[e' h'] c']. unfold sel3_eqb. simpl. intros H.
  apply andb_prop in H. destruct H as [H H3]. apply andb_prop in H. destruct H as [H1 H2].
  apply N.eqb_eq in H1. apply Z.eqb_eq in H2. apply Z.eqb_eq in H3. congruence.
Qed.
Lemma nodes_sub_elim (X Y : molg) : nodes_sub X Y = true ->
  forall n a, In (n, a) (gnodes X) -> exists b, label Y n = Some b /\ sel3 a = sel3 b.
Proof.
  unfold nodes_sub. intros H n a I. eapply forallb_elim in H; [|exact I]. simpl in H. destruct (label Y n) as [b|]; [|discriminate]. exists b. split; [reflexivity|].
  apply sel3_eqb_eq. exact H.
Qed.
Lemma edges_sub_elim (X Y : molg) : edges_sub X Y = true -> forall u v o, In (u, v, o) (gedges X) -> adj Y u v = Some o.
Proof.
  unfold edges_sub. intros H u v o I. eapply forallb_elim in H; [|exact I]. cbn beta iota in H.
  destruct (adj Y u v) as [o'|]; [|discriminate]. apply Z.eqb_eq in H. congruence.
Qed.
Lemma mol_eqb_elim (X Y : molg) : mol_eqb X Y = true ->
  (nodes_sub X Y = true /\ nodes_sub Y X = true) /\ (edges_sub X Y = true /\ edges_sub Y X = true).
Proof.
  unfold mol_eqb. intros H. apply andb_prop in H. destruct H as [H H4]. apply andb_prop in H. destruct H as [H H3].
  apply andb_prop in H. tauto.
Qed.
Lemma mol_eqb_intro (X Y : molg) :
  (forall n a, In (n, a) (gnodes X) -> label X n = Some a) ->
  (forall n a, In (n, a) (gnodes Y) -> label Y n = Some a) ->
  (forall u v o, In (u, v, o) (gedges X) -> adj X u v = Some o) ->
  (forall u v o, In (u, v, o) (gedges Y) -> adj Y u v = Some o) ->
  (forall n, option_map sel3 (label X n) = option_map sel3 (label Y n)) ->
  (forall u v, adj X u v = adj Y u v) ->
  mol_eqb X Y = true.
Proof.
  intros HX HY EX EY Hn He. unfold mol_eqb, nodes_sub, edges_sub.
  repeat (apply andb_true_intro; split); apply forallb_forall.
  - intros [n a] I. simpl. rewrite <- Hn, (HX n a I). simpl. apply sel3_eqb_refl.
  - intros [n a] I. simpl. rewrite Hn, (HY n a I). simpl. apply sel3_eqb_refl.
  - intros [[u v] o] I. rewrite <- He, (EX u v o I). simpl. apply Z.eqb_refl.
  - intros [[u v] o] I. rewrite He, (EY u v o I). simpl. apply Z.eqb_refl.
Qed.

(** decomposed sides of an ITS with simple edges and distinct ids satisfy the side conditions of [mol_eqb_intro] *)
Lemma dec_label sn se (T : its) n : label (dec_side sn se T) n = option_map (fun a => dec_node (sn a)) (label T n).
Proof. unfold label. rewrite dec_gnodes. apply (assoc_map (fun a => dec_node (sn a))). Qed.
Lemma dec_nodes_ok sn se (T : its) : NoDup (node_ids T) ->
  forall n a, In (n, a) (gnodes (dec_side sn se T)) -> label (dec_side sn se T) n = Some a.
Proof.
  intros Hnd n a I. rewrite dec_gnodes in I. apply in_map_iff in I. destruct I as ([k v] & E & I). simpl in E. inversion E; subst.
  rewrite dec_label, (label_in T n v Hnd I). reflexivity.
Qed.
Lemma dec_edges_ok sn se (T : its) : simpleP (pairs (gedges T)) ->
  forall u v o, In (u, v, o) (gedges (dec_side sn se T)) -> adj (dec_side sn se T) u v = Some o.
Proof.
  intros Hs u v o I. rewrite (dec_adj sn se T u v Hs). unfold dec_side in I; simpl in I.
  apply in_flat_map in I. destruct I as ([[p q] x] & I & I'). destruct (0 <? se x) eqn:E; [|destruct I'].
  destruct I' as [I'|[]]. inversion I'; subst. unfold adj. rewrite (simple_in_find (gedges T) u v x Hs I), E. reflexivity.
Qed.
Lemma molg_of_label (A : hostg) n : label (molg_of A) n = option_map dec_node (label A n).
Proof. unfold label, molg_of; simpl. apply (assoc_map dec_node). Qed.
Lemma molg_of_nodes_ok (A : hostg) : NoDup (node_ids A) -> forall n a, In (n, a) (gnodes (molg_of A)) -> label (molg_of A) n = Some a.
Proof.
  intros Hnd n a I. unfold molg_of in I; simpl in I. apply in_map_iff in I. destruct I as ([k v] & E & I). simpl in E. inversion E; subst.
  rewrite molg_of_label, (label_in A n v Hnd I). reflexivity.
Qed.
Lemma molg_of_edges_ok (A : hostg) : wf_hostb A = true -> forall u v o, In (u, v, o) (gedges (molg_of A)) -> adj (molg_of A) u v = Some o.
Proof. intros H u v o I. unfold adj, molg_of in *; simpl in *. apply simple_in_find; [apply host_simple; exact H|exact I]. Qed.

Definition sel (a : nattr) : N * Z * Z := (a_el a, a_hc a, a_ch a).
Lemma sel_dec (x y : nattr) : {sel x = sel y} + {sel x <> sel y}.
Proof. unfold sel. repeat decide equality. Qed.

(** a balanced pair of molecule graphs on the same atoms *)
Record pair_wf (A B : hostg) : Prop := {
  pw_A : wf_hostb A = true;
  pw_B : wf_hostb B = true;
  pw_ids : forall n, In n (node_ids A) <-> In n (node_ids B);
  pw_el : forall n x y, label A n = Some x -> label B n = Some y -> a_el x = a_el y }.

(** a template atom fits the atom (x in A, y in B): same elements and charges, it demands no more hydrogens than x has
    and changes the hydrogen count by what distinguishes y from x (in implicit mode the counts are simply equal; a rule
    prepared by _strip_explicit_h carries only the hydrogens that take part) *)
Definition node_fit (a : inode) (x y : nattr) : Prop :=
  a_el (iG a) = a_el x /\ a_el (iH a) = a_el y /\ a_ch (iG a) = a_ch x /\ a_ch (iH a) = a_ch y /\
  a_hc (iG a) <= a_hc x /\ a_hc (iG a) - a_hc (iH a) = a_hc x - a_hc y.

(** [tpl] fits the pair (A, B): its tuples and bond orders are those of A and B *)
Record fits (A B : hostg) (tpl : its) : Prop := {
  f_wf : wf_rcb tpl = true;
  f_nodes : forall n a, In (n, a) (gnodes tpl) ->
              exists x y, label A n = Some x /\ label B n = Some y /\ node_fit a x y;
  f_edges : forall u v x, In (u, v, x) (gedges tpl) ->
              In u (node_ids tpl) /\ In v (node_ids tpl) /\ eG x = order_in A u v /\ eH x = order_in B u v }.
(** [tpl] describes the pair (A, B): it fits and contains every bond and every atom on which A and B differ *)
Record describes (A B : hostg) (tpl : its) : Prop := {
  d_fits : fits A B tpl;
  d_cover_e : forall u v, order_in A u v <> order_in B u v -> exists x, adj tpl u v = Some x;
  d_cover_n : forall n x y, label A n = Some x -> label B n = Some y -> sel x <> sel y -> In n (node_ids tpl) }.
Definition d_wf A B tpl (D : describes A B tpl) := f_wf _ _ _ (d_fits _ _ _ D).
Definition d_nodes A B tpl (D : describes A B tpl) := f_nodes _ _ _ (d_fits _ _ _ D).
Definition d_edges A B tpl (D : describes A B tpl) := f_edges _ _ _ (d_fits _ _ _ D).

(** * gluing along a mapping under which the template fits *)
Section Along.
  Variables (A B : hostg) (tpl : its) (m : mapping).
  (** every template atom has an image on which its tuples fit, every template bond has the orders of its image *)
  Hypothesis MN : forall n a, In (n, a) (gnodes tpl) ->
    exists h x y, mget m n = Some h /\ label A h = Some x /\ label B h = Some y /\ node_fit a x y.
  Hypothesis ME : forall u v x, In (u, v, x) (gedges tpl) ->
    exists hu hv, mget m u = Some hu /\ mget m v = Some hv /\ eG x = order_in A hu hv /\ eH x = order_in B hu hv.

  Lemma m_match_rc : NoDup (map fst m) -> NoDup (map snd m) -> length m = length (gnodes tpl) -> match_rcb A tpl m = true.
  Proof.
    intros Hk Hv Hl. unfold match_rcb. rewrite (NoDup_nodupb _ Hk), (NoDup_nodupb _ Hv), Hl, Nat.eqb_refl. simpl.
    apply andb_true_intro; split; apply forallb_forall.
    - intros [n a] I. unfold rc_node_okb. simpl.
      destruct (MN n a I) as (h & x & y & Eh & Ex & _ & E1 & _ & E3 & _ & E5 & _).
      rewrite Eh, Ex, E1, E3, N.eqb_refl, Z.eqb_refl. simpl. apply Z.leb_le. exact E5.
    - intros [[u v] x] I. unfold rc_edge_okb. destruct (ME u v x I) as (hu & hv & E1 & E2 & Eg & _). rewrite E1, E2.
      destruct (0 <? eG x) eqn:E; [|reflexivity]. apply Z.ltb_lt in E.
      rewrite Eg in E. unfold order_in in E, Eg. destruct (adj A hu hv) as [o|]; [|lia]. apply Z.eqb_eq. congruence.
  Qed.

  Hypothesis PW : pair_wf A B.
  Hypothesis Hwr : wf_rcb tpl = true.
  Hypothesis Hm : match_rcb A tpl m = true.
  Let HA := pw_A _ _ PW.
  Let HB := pw_B _ _ PW.
  Let MO : match_ok A tpl m := match_rcb_sound A tpl m (wf_rc_nodup tpl Hwr) Hm.

  (** gluing produces an ITS (no additive edge: a bond the template forms is absent in A) *)
  Lemma m_glue_some : exists T, glue A tpl m = Some T.
  Proof.
    destruct (glue A tpl m) as [T|] eqn:E; [eauto|]. exfalso.
    apply (glue_none_iff A tpl m Hwr Hm) in E.
    destruct E as (u & v & x & hu & hv & o & I & E0 & E1 & E2 & Ea & _).
    destruct (ME u v x I) as (hu' & hv' & E1' & E2' & Eg & _). rewrite E1 in E1'. rewrite E2 in E2'.
    inversion E1'; inversion E2'; subst hu' hv'. destruct (order_in_pos A hu hv o HA Ea). lia.
  Qed.

  Variable T : its.
  Hypothesis Hg : glue A tpl m = Some T.

  Lemma mT_left : node_ids T = node_ids A /\ (forall n, option_map iG (label T n) = label A n) /\ (forall a b, bondG T a b = adj A a b).
  Proof. exact (left_is_host A tpl m T HA Hwr Hm Hg). Qed.
  Lemma mT_nodup : NoDup (node_ids T).
  Proof. exact (glued_nodup A tpl m T HA Hwr Hm Hg). Qed.
  Lemma mT_simple : simpleP (pairs (gedges T)).
  Proof. exact (glued_simple A tpl m T HA Hwr Hm Hg). Qed.

  (** an atom outside the image keeps the substrate's tuple on the product side: if it differs from B's in hydrogen
      count or charge, the decomposition of the glued ITS is NOT (A, B) *)
  Lemma m_outside_not_regen h x y : ~ In h (map snd m) -> label A h = Some x -> label B h = Some y ->
    a_hc x <> a_hc y \/ a_ch x <> a_ch y -> regen_exact T A B = false.
  Proof.
    intros NI Ex Ey Hd. destruct (regen_exact T A B) eqn:ER; [exfalso|reflexivity].
    pose proof (unglued_node A tpl m T Hg h NI) as UN. rewrite Ex in UN.
    unfold regen_exact, its_decompose in ER. apply andb_prop in ER. destruct ER as [_ ER].
    destruct (nodes_sub_elim _ _ (proj1 (proj1 (mol_eqb_elim _ _ ER))) h (dec_node x)) as (b & Eb & Es).
    { rewrite dec_gnodes. apply in_map_iff. exists (h, IN x x 0 None). split; [reflexivity|]. apply assoc_in. exact UN. }
    rewrite molg_of_label, Ey in Eb. inversion Eb; subst b. inversion Es. destruct Hd; contradiction.
  Qed.

  (** [m] reaches every bond and every atom on which A and B differ *)
  Hypothesis MCe : forall a b, order_in A a b <> order_in B a b -> find_hit m (gedges tpl) a b <> None.
  Hypothesis MCn : forall h x y, label A h = Some x -> label B h = Some y -> sel x <> sel y -> In h (map snd m).

  (** product-side tuples *)
  Lemma m_product_nodes h : option_map (fun a => sel (iH a)) (label T h) = option_map sel (label B h).
  Proof.
    destruct (label A h) as [x|] eqn:Ex.
    - destruct (in_ids_label B h (proj1 (pw_ids _ _ PW h) (label_some_in A h x Ex))) as [y Ey]. rewrite Ey. simpl.
      destruct (in_dec N.eq_dec h (map snd m)) as [I|NI].
      + destruct (in_snd_mget m h (mo_keys _ _ _ MO) I) as [p Ep].
        assert (Ik : In p (node_ids tpl)).
        { apply (Permutation_in _ (Permutation_sym (mo_perm _ _ _ MO))). unfold mget in Ep. apply assoc_in in Ep.
          change p with (fst (p, h)). apply in_map. exact Ep. }
        destruct (in_ids_label tpl p Ik) as [pn Epn].
        assert (Ip : In (p, pn) (gnodes tpl)) by (apply assoc_in; exact Epn).
        destruct (glued_node A tpl m T Hwr Hm Hg p h pn Ep Ip) as (hn & Eh & ET).
        rewrite ET. simpl. rewrite Ex in Eh. inversion Eh; subst hn.
        destruct (MN p pn Ip) as (h' & x' & y' & Ep' & Ex' & Ey' & _ & _ & _ & E4 & _ & E6).
        rewrite Ep in Ep'. inversion Ep'; subst h'. rewrite Ex in Ex'. rewrite Ey in Ey'. inversion Ex'; inversion Ey'; subst x' y'.
        unfold sel; simpl. rewrite (pw_el _ _ PW h x y Ex Ey), E4. f_equal. f_equal. f_equal. lia.
      + rewrite (unglued_node A tpl m T Hg h NI), Ex. simpl. f_equal.
        destruct (sel_dec x y) as [E|NE]; [exact E|]. exfalso. exact (NI (MCn h x y Ex Ey NE)).
    - assert (HT : label T h = None).
      { destruct (label T h) as [a|] eqn:ET; [|reflexivity]. exfalso.
        apply (label_none A h Ex). rewrite <- (proj1 mT_left). exact (label_some_in T h a ET). }
      rewrite HT. destruct (label B h) as [y|] eqn:Ey; [|reflexivity]. exfalso.
      apply (label_none A h Ex). apply (pw_ids _ _ PW h). exact (label_some_in B h y Ey).
  Qed.

  (** product-side bonds *)
  Lemma m_product_bonds a b : bondH T a b = adj B a b.
  Proof.
    unfold bondH. pose proof (glue_adj A tpl m T Hwr Hm Hg a b) as H.
    destruct (find_hit m (gedges tpl) a b) as [x|] eqn:Ef.
    - destruct H as (r & Hr & Ha). rewrite Ha.
      destruct (hit_edge A tpl m Hwr Hm a b x Ef) as (u & v & hu & hv & I & E1 & E2 & Hp & _).
      destruct (ME u v x I) as (hu' & hv' & E1' & E2' & Eg & Eh). rewrite E1 in E1'. rewrite E2 in E2'.
      inversion E1'; inversion E2'; subst hu' hv'.
      rewrite (order_in_peq A hu hv a b Hp) in Eg. rewrite (order_in_peq B hu hv a b Hp) in Eh.
      assert (Er : eH r = order_in B a b).
      { destruct (adj A a b) as [o|] eqn:Ea; simpl in Hr.
        - destruct (order_in_pos A a b o HA Ea) as [Eo Ho]. destruct (Z.eqb_spec (eG x) 0) as [E0|E0]; [lia|].
          inversion Hr; subst. exact Eh.
        - inversion Hr; subst. exact Eh. }
      rewrite Er. apply order_in_bond. exact HB.
    - rewrite H. assert (E : order_in A a b = order_in B a b).
      { destruct (Z.eq_dec (order_in A a b) (order_in B a b)) as [E|NE]; [exact E|]. exfalso. exact (MCe a b NE Ef). }
      rewrite <- (order_in_eq_adj A B a b HA HB E). destruct (adj A a b) as [o|] eqn:Ea; simpl; [|reflexivity].
      unfold lift, eH; simpl. pose proof (wf_host_pos A a b o HA Ea). destruct (Z.ltb_spec 0 o); [reflexivity|lia].
  Qed.

  (** the decomposition of the glued ITS is the pair again *)
  Theorem m_regen_exact : regen_exact T A B = true.
  Proof.
    unfold regen_exact, its_decompose. apply andb_true_intro; split; apply mol_eqb_intro;
      try (apply dec_nodes_ok; exact mT_nodup); try (apply dec_edges_ok; exact mT_simple).
    - apply molg_of_nodes_ok. exact (wf_host_nodup A HA).
    - apply molg_of_edges_ok. exact HA.
    - intros n. rewrite dec_label, molg_of_label, <- (proj1 (proj2 mT_left) n). destruct (label T n); reflexivity.
    - intros u v. rewrite (dec_adj iG eG T u v mT_simple). exact (proj2 (proj2 mT_left) u v).
    - apply molg_of_nodes_ok. exact (wf_host_nodup B HB).
    - apply molg_of_edges_ok. exact HB.
    - intros n. rewrite dec_label, molg_of_label. pose proof (m_product_nodes n) as E.
      destruct (label T n) as [a|], (label B n) as [y|]; simpl in *; try discriminate; [|reflexivity].
      unfold sel in E. inversion E. unfold sel3; simpl. congruence.
    - intros u v. rewrite (dec_adj iH eH T u v mT_simple). exact (m_product_bonds u v).
  Qed.
End Along.

Lemma fits_nodupb A B tpl : fits A B tpl -> nodupb (node_ids tpl) = true.
Proof. intros F. apply NoDup_nodupb, wf_rc_nodup. exact (f_wf _ _ _ F). Qed.

Section Regen.
  Variables (A B : hostg) (tpl : its).
  Hypothesis D : describes A B tpl.

  Lemma tpl_nodupb : nodupb (node_ids tpl) = true.
  Proof. exact (fits_nodupb A B tpl (d_fits _ _ _ D)). Qed.
End Regen.
