(** C09 — the canonical form does not depend on the presentation (numbering, atom order) of the input, and is a fixed
    point, RELATIVE to the corresponding property of the graph canonicaliser (explicit premise).  Product atoms without
    reactant partner are numbered in the order of their input numbers, so the renaming must keep their relative order
    (it does for the second run of the canonicaliser on its own output: fixed point without that restriction). *)
From Coq Require Import List NArith ZArith Bool Arith Lia Permutation.
From SK Require Import lib.LGraph lib.C01_GraphLemmas model.C01_Model model.C09_Model
  proof.C09_Lists proof.C09_Canon proof.C09_Equiv proof.C09_Main.
From SK Require proof.C01_OptsProof.
Import ListNotations.

(** the same graph up to the insertion order of the nodes *)
Definition same_upto_order (X Y : mgraph) : Prop := Permutation (gnodes X) (gnodes Y) /\ gedges X = gedges Y.
Lemma suo_sym X Y : same_upto_order X Y -> same_upto_order Y X.
Proof. intros (A & B). split; [apply Permutation_sym; exact A|symmetry; exact B]. Qed.
Lemma suo_trans X Y Z : same_upto_order X Y -> same_upto_order Y Z -> same_upto_order X Z.
Proof. intros (A & B) (C & D). split; [eapply Permutation_trans; eauto|congruence]. Qed.
Lemma suo_set_amap X Y : same_upto_order X Y -> same_upto_order (set_amap X) (set_amap Y).
Proof. intros (A & B). split; [unfold set_amap; simpl; apply Permutation_map; exact A|exact B]. Qed.
Lemma suo_relabel f X Y : same_upto_order X Y -> same_upto_order (relabel f X) (relabel f Y).
Proof. intros (A & B). split; unfold relabel; simpl; [apply Permutation_map; exact A|rewrite B; reflexivity]. Qed.

Lemma set_amap_relabel_set_amap f (X : mgraph) : set_amap (relabel f (set_amap X)) = set_amap (relabel f X).
Proof. unfold set_amap, relabel. simpl. f_equal. rewrite !map_map. apply map_ext. intros [n a]. reflexivity. Qed.
Lemma relabel_relabel {A B} f g (X : lgraph A B) : relabel f (relabel g X) = relabel (fun n => f (g n)) X.
Proof. unfold relabel. simpl. f_equal; rewrite map_map; apply map_ext; [intros [n a]|intros [[a b] x]]; reflexivity. Qed.

Lemma amap_id_set_amap (X : mgraph) : amap_id (set_amap X).
Proof.
  intros n a E. unfold label, set_amap in E. simpl in E.
  rewrite (assoc_map_val (fun k (a : gnode) => GN (g_el a) (g_arom a) (g_hc a) (g_ch a) (g_nb a) (Z.of_N k)) n (gnodes X)) in E.
  destruct (assoc n (gnodes X)); [|discriminate]. simpl in E. inversion E. reflexivity.
Qed.

Lemma chain (f1 f2 p : N -> N) (Z X' X'' : mgraph) : wf Z ->
  relabelled_by p Z X' -> relabelled_by f2 (set_amap X') X'' -> (forall n, In n (node_ids Z) -> f2 (p n) = f1 n) ->
  same_upto_order (set_amap X'') (set_amap (relabel f1 Z)).
Proof.
  intros WZ R1 R2 Hf.
  eapply suo_trans; [apply suo_set_amap; exact R2|]. rewrite set_amap_relabel_set_amap.
  eapply suo_trans; [apply suo_set_amap; apply suo_relabel; exact R1|]. rewrite relabel_relabel.
  rewrite (relabel_agree (fun n => f2 (p n)) f1 Z WZ Hf). split; [apply Permutation_refl|reflexivity].
Qed.

Lemma parsed_renamed (p : N -> N) (X X' : mgraph) :
  (forall a b, p a = p b -> a = b) -> (forall n, In n (node_ids X) -> p n <> 0%N) -> wf X -> relabelled_by p X X' ->
  parsed (set_amap X').
Proof.
  intros Pinj Ppos W R. split; [apply wf_set_amap; apply (rel_wf p Pinj X X' W R)|split; [apply amap_id_set_amap|]].
  intros n I. rewrite node_ids_set_amap in I. apply (rel_node_ids p X X' R) in I. apply in_map_iff in I.
  destruct I as (m & <- & Im). apply Ppos. exact Im.
Qed.

(** Two runs, on a reaction (G, H) and on a parsed reaction (G', H') whose atoms are those of (G, H) renamed by p (only the
    node sets matter here, not how atoms and bonds are listed).  If the graph canonicaliser gives corresponding reactant atoms
    the same canonical id and p keeps the order of the partner-less product atoms, both runs succeed and the two relabelling
    maps correspond through p on every atom of the reaction. *)
Theorem canon_pair (G H G' H' Gc1 Gc2 : mgraph) (order1 order2 : list N) (p : N -> N) :
  parsed G -> parsed H -> shares_atom G H ->
  (forall a b, p a = p b -> a = b) -> parsed G' -> parsed H' ->
  (forall x, In x (node_ids G') <-> In x (map p (node_ids G))) ->
  (forall x, In x (node_ids H') <-> In x (map p (node_ids H))) ->
  enumerates order1 G -> relabelled_by (sigma_of order1) G Gc1 ->
  enumerates order2 G' -> relabelled_by (sigma_of order2) G' Gc2 ->
  (forall n, In n (node_ids G) -> sigma_of order2 (p n) = sigma_of order1 n) ->
  nsorted (map p (extra_nodes H (aam_pairs Gc1 H))) ->
  exists f1 f2 : N -> N,
    canonicalise_with Gc1 H = Some (set_amap Gc1, aam_pairs Gc1 H, set_amap (relabel f1 H)) /\
    canonicalise_with Gc2 H' = Some (set_amap Gc2, aam_pairs Gc2 H', set_amap (relabel f2 H')) /\
    relabelled_by f1 G Gc1 /\ relabelled_by f2 G' Gc2 /\
    (forall n, In n (node_ids G) \/ In n (node_ids H) -> f2 (p n) = f1 n).
Proof.
  intros (WG & AG & PG) (WH & AH & PH) (s & Is1 & Is2) Pinj (WG2 & AG2 & PG2) (WH2 & AH2 & PH2) IG2 IH2 (O1 & I1) R1 (O2 & I2) R2 Inv Hsorted.
  assert (Hs1 : exists s, In s (node_ids G) /\ In s (node_ids H)) by (exists s; auto).
  assert (Hs2 : exists s, In s (node_ids G') /\ In s (node_ids H')).
  { exists (p s). split; [apply IG2|apply IH2]; apply in_map; assumption. }
  destruct (canonicalise_with_spec G H Gc1 order1 WG WH AG AH PG PH O1 I1 R1 Hs1) as (Hc1 & E1 & RF1 & -> & Fs1 & _).
  destruct (canonicalise_with_spec G' H' Gc2 order2 WG2 WH2 AG2 AH2 PG2 PH2 O2 I2 R2 Hs2) as (Hc2 & E2 & RF2 & -> & Fs2 & _).
  set (f1 := C09_Canon.f H Gc1 order1) in *. set (f2 := C09_Canon.f H' Gc2 order2) in *.
  exists f1, f2. split; [exact E1|]. split; [exact E2|]. split; [exact RF1|]. split; [exact RF2|].
  set (E1x := extra_nodes H (aam_pairs Gc1 H)) in *. set (E2x := extra_nodes H' (aam_pairs Gc2 H')).
  pose proof (extras_in G H Gc1 order1 WG WH AG AH PG PH R1) as X1. fold E1x in X1.
  (* the partner-less atoms of the second reaction are the images of those of the first, in the same order *)
  assert (K : E2x = map p E1x).
  { apply sorted_unique.
    - apply nsort_sorted.
    - exact Hsorted.
    - apply extras_nodup. exact WH2.
    - apply FinFun.Injective_map_NoDup; [exact Pinj|apply extras_nodup; exact WH].
    - intros x. unfold E2x. rewrite (extras_in G' H' Gc2 order2 WG2 WH2 AG2 AH2 PG2 PH2 R2), IG2, IH2, !in_map_iff. split.
      + intros ((n & <- & In1) & Hn). exists n. split; [reflexivity|]. apply X1. split; [exact In1|]. intros IG. apply Hn. exists n. auto.
      + intros (n & <- & In1). apply X1 in In1. destruct In1 as (In1 & Hn).
        split; [exists n; auto|]. intros (m & Em & Im). apply Pinj in Em. subst m. contradiction. }
  assert (Len : length order2 = length order1).
  { assert (P1 : Permutation order1 (node_ids G)) by (apply NoDup_Permutation; auto; apply WG).
    assert (P2 : Permutation order2 (map p (node_ids G))).
    { apply NoDup_Permutation; auto.
      - apply FinFun.Injective_map_NoDup; [exact Pinj|apply WG].
      - intros x. rewrite I2. apply IG2. }
    rewrite (Permutation_length P1), (Permutation_length P2), map_length. reflexivity. }
  assert (HfG : forall n, In n (node_ids G) -> f2 (p n) = f1 n).
  { intros n I. rewrite Fs2 by (apply I2, IG2, in_map, I). rewrite Fs1 by (apply I1, I). apply Inv. exact I. }
  intros n [I|I]; [apply HfG; exact I|].
  destruct (in_dec N.eq_dec n (node_ids G)) as [IG|NG]; [apply HfG; exact IG|].
  (* a partner-less atom is the i-th one on both sides; both runs number it |order| + 1 + i *)
  destruct (In_nth E1x n 0%N (proj2 (X1 n) (conj I NG))) as (i & Hi & <-).
  assert (Ep : p (nth i E1x 0%N) = nth i E2x 0%N).
  { rewrite K. symmetry. apply nth_map. exact Hi. }
  assert (Hi2 : (i < length E2x)%nat) by (rewrite K, map_length; exact Hi).
  rewrite Ep. unfold f1, f2, E1x, E2x.
  rewrite (f_extra G H Gc1 order1 WG WH AG AH PG PH I1 R1 i Hi), (f_extra G' H' Gc2 order2 WG2 WH2 AG2 AH2 PG2 PH2 I2 R2 i Hi2), Len.
  reflexivity.
Qed.

(** p keeps the relative order of the product atoms without reactant partner (the canonicaliser numbers them in the order of
    their input numbers) *)
Definition keeps_extra_order (p : N -> N) (G H : mgraph) : Prop :=
  forall m n, In m (node_ids H) -> ~ In m (node_ids G) -> In n (node_ids H) -> ~ In n (node_ids G) -> (m <= n)%N -> (p m <= p n)%N.

Lemma extras_sorted_mono (G H Gc1 : mgraph) (order1 : list N) (p : N -> N) :
  parsed G -> parsed H -> relabelled_by (sigma_of order1) G Gc1 ->
  keeps_extra_order p G H ->
  nsorted (map p (extra_nodes H (aam_pairs Gc1 H))).
Proof.
  intros (WG & AG & PG) (WH & AH & PH) R1 Pmono. apply nsorted_map; [apply nsort_sorted|].
  intros m n Im In'. apply (extras_in G H Gc1 order1 WG WH AG AH PG PH R1) in Im, In'. destruct Im, In'. apply Pmono; auto.
Qed.

(** the partner-less product atoms of the canonical product graph are numbered N+1.. in increasing order *)
Lemma canonical_extras_sorted (G H Gc1 : mgraph) (order1 : list N) :
  parsed G -> parsed H -> enumerates order1 G -> relabelled_by (sigma_of order1) G Gc1 ->
  nsorted (map (C09_Canon.f H Gc1 order1) (extra_nodes H (aam_pairs Gc1 H))).
Proof.
  intros (WG & AG & PG) (WH & AH & PH) (O1 & I1) R1.
  set (f1 := C09_Canon.f H Gc1 order1). set (E := extra_nodes H (aam_pairs Gc1 H)).
  set (g := fun i : nat => (N.of_nat (length order1) + 1 + N.of_nat i)%N).
  assert (Em : map f1 E = map g (seq 0 (length E))).
  { apply (nth_ext _ _ 0%N 0%N); [rewrite !map_length, seq_length; reflexivity|].
    intros i Hi. rewrite map_length in Hi.
    rewrite (nth_map f1 E i 0%N 0%N Hi), (nth_map g _ i 0%N 0%nat), seq_nth by (rewrite ?seq_length; exact Hi).
    apply (f_extra G H Gc1 order1 WG WH AG AH PG PH I1 R1 i Hi). }
  rewrite Em. apply nsorted_map_seq. intros i j Hij. unfold g. lia.
Qed.

Theorem presentation_independent_gen (G H G2' H2' Gc1 Gc2 : mgraph) (order1 order2 : list N) (p : N -> N) :
  parsed G -> parsed H -> shares_atom G H ->
  (forall a b, p a = p b -> a = b) -> (forall n, In n (node_ids G) \/ In n (node_ids H) -> p n <> 0%N) ->
  relabelled_by p G G2' -> relabelled_by p H H2' ->
  enumerates order1 G -> relabelled_by (sigma_of order1) G Gc1 ->
  enumerates order2 (set_amap G2') -> relabelled_by (sigma_of order2) (set_amap G2') Gc2 ->
  (forall n, In n (node_ids G) -> sigma_of order2 (p n) = sigma_of order1 n) ->
  nsorted (map p (extra_nodes H (aam_pairs Gc1 H))) ->
  exists (pairs1 pairs2 : list (N * N)) (Hc1 Hc2 : mgraph),
    canonicalise_with Gc1 H = Some (set_amap Gc1, pairs1, set_amap Hc1) /\
    canonicalise_with Gc2 (set_amap H2') = Some (set_amap Gc2, pairs2, set_amap Hc2) /\
    same_upto_order (set_amap Gc2) (set_amap Gc1) /\ same_upto_order (set_amap Hc2) (set_amap Hc1).
Proof.
  intros PG PH Hs Pinj Ppos RG2 RH2 En1 R1 En2 R2 Inv Hsorted. pose proof PG as (WG & _). pose proof PH as (WH & _).
  assert (PG2 : parsed (set_amap G2')) by (apply (parsed_renamed p G); auto).
  assert (PH2 : parsed (set_amap H2')) by (apply (parsed_renamed p H); auto).
  assert (IG2 : forall x, In x (node_ids (set_amap G2')) <-> In x (map p (node_ids G))).
  { intros x. rewrite node_ids_set_amap. apply (rel_node_ids p G G2' RG2). }
  assert (IH2 : forall x, In x (node_ids (set_amap H2')) <-> In x (map p (node_ids H))).
  { intros x. rewrite node_ids_set_amap. apply (rel_node_ids p H H2' RH2). }
  destruct (canon_pair G H (set_amap G2') (set_amap H2') Gc1 Gc2 order1 order2 p PG PH Hs Pinj PG2 PH2 IG2 IH2 En1 R1 En2 R2 Inv Hsorted)
    as (f1 & f2 & E1 & E2 & RF1 & RF2 & Hf).
  exists (aam_pairs Gc1 H), (aam_pairs Gc2 (set_amap H2')), (relabel f1 H), (relabel f2 (set_amap H2')).
  split; [exact E1|]. split; [exact E2|]. split.
  - eapply suo_trans; [apply (chain f1 f2 p G G2' Gc2 WG RG2 RF2); intros n I; apply Hf; auto|].
    apply suo_sym. apply suo_set_amap. exact RF1.
  - apply (chain f1 f2 p H H2' _ WH RH2 (relabelled_exact _ _)). intros n I. apply Hf. auto.
Qed.

(** numbering independence with partner-less product atoms: the renaming must keep their relative order *)
Theorem presentation_independent_mono (G H G2' H2' Gc1 Gc2 : mgraph) (order1 order2 : list N) (p : N -> N) :
  parsed G -> parsed H -> shares_atom G H ->
  (forall a b, p a = p b -> a = b) -> (forall n, In n (node_ids G) \/ In n (node_ids H) -> p n <> 0%N) ->
  keeps_extra_order p G H ->
  relabelled_by p G G2' -> relabelled_by p H H2' ->
  enumerates order1 G -> relabelled_by (sigma_of order1) G Gc1 ->
  enumerates order2 (set_amap G2') -> relabelled_by (sigma_of order2) (set_amap G2') Gc2 ->
  (forall n, In n (node_ids G) -> sigma_of order2 (p n) = sigma_of order1 n) ->
  exists (pairs1 pairs2 : list (N * N)) (Hc1 Hc2 : mgraph),
    canonicalise_with Gc1 H = Some (set_amap Gc1, pairs1, set_amap Hc1) /\
    canonicalise_with Gc2 (set_amap H2') = Some (set_amap Gc2, pairs2, set_amap Hc2) /\
    same_upto_order (set_amap Gc2) (set_amap Gc1) /\ same_upto_order (set_amap Hc2) (set_amap Hc1).
Proof.
  intros PG PH Hs Pinj Ppos Pmono RG2 RH2 En1 R1 En2 R2 Inv.
  apply (presentation_independent_gen G H G2' H2' Gc1 Gc2 order1 order2 p); auto.
  apply (extras_sorted_mono G H Gc1 order1 p PG PH R1 Pmono).
Qed.

(** one run, in the form the second run needs: it renames both sides by an injective f1 that is the canonical position on
    the reactant atoms and numbers the partner-less product atoms in increasing order *)
Lemma first_run (G H Gc1 : mgraph) (order1 : list N) :
  parsed G -> parsed H -> shares_atom G H ->
  enumerates order1 G -> relabelled_by (sigma_of order1) G Gc1 ->
  exists f1 : N -> N,
    canonicalise_with Gc1 H = Some (set_amap Gc1, aam_pairs Gc1 H, set_amap (relabel f1 H)) /\
    (forall a b, f1 a = f1 b -> a = b) /\ (forall n, f1 n <> 0%N) /\
    (forall n, In n (node_ids G) -> f1 n = sigma_of order1 n) /\ relabelled_by f1 G Gc1 /\
    nsorted (map f1 (extra_nodes H (aam_pairs Gc1 H))).
Proof.
  intros PG PH Hs En1 R1.
  pose proof PG as (WG & AG & PG'). pose proof PH as (WH & AH & PH'). pose proof En1 as (O1 & I1).
  destruct (canonicalise_with_spec G H Gc1 order1 WG WH AG AH PG' PH' O1 I1 R1 Hs) as (Hc1 & E1 & RF1 & -> & Fs1 & _).
  exists (C09_Canon.f H Gc1 order1). split; [exact E1|]. split; [intros a b; apply tau_injective|]. split; [apply tau_pos|].
  split; [intros n I; apply Fs1, I1, I|]. split; [exact RF1|]. apply (canonical_extras_sorted G H Gc1 order1 PG PH En1 R1).
Qed.

(** fixed point, product atoms without partner included: the graphs the first run returns are parsed graphs, and a second run
    on them returns them up to node insertion order, provided the graph canonicaliser gives the atom f1 n of the canonical
    reactant graph the canonical id of n *)
Theorem fixed_point_maps (G H Gc1 : mgraph) (order1 : list N) :
  parsed G -> parsed H -> shares_atom G H ->
  enumerates order1 G -> relabelled_by (sigma_of order1) G Gc1 ->
  exists (pairs1 : list (N * N)) (Hc1 : mgraph) (f1 : N -> N),
    canonicalise_with Gc1 H = Some (set_amap Gc1, pairs1, set_amap Hc1) /\ parsed (set_amap Gc1) /\ parsed (set_amap Hc1) /\
    (forall a b, f1 a = f1 b -> a = b) /\ (forall n, In n (node_ids G) -> f1 n = sigma_of order1 n) /\ relabelled_by f1 G Gc1 /\
    forall (order2 : list N) (Gc2 : mgraph),
      enumerates order2 (set_amap Gc1) -> relabelled_by (sigma_of order2) (set_amap Gc1) Gc2 ->
      (forall n, In n (node_ids G) -> sigma_of order2 (f1 n) = sigma_of order1 n) ->
      exists (pairs2 : list (N * N)) (Hc2' : mgraph),
        canonicalise_with Gc2 (set_amap Hc1) = Some (set_amap Gc2, pairs2, Hc2') /\
        same_upto_order (set_amap Gc2) (set_amap Gc1) /\ same_upto_order Hc2' (set_amap Hc1).
Proof.
  intros PG PH Hs En1 R1. pose proof PG as (WG & _). pose proof PH as (WH & _).
  destruct (first_run G H Gc1 order1 PG PH Hs En1 R1) as (f1 & E1 & Finj & Fpos & Fs & RF1 & Fsorted).
  exists (aam_pairs Gc1 H), (relabel f1 H), f1. split; [exact E1|].
  split; [apply (parsed_renamed f1 G Gc1 Finj (fun n _ => Fpos n) WG RF1)|].
  split; [apply (parsed_renamed f1 H _ Finj (fun n _ => Fpos n) WH (relabelled_exact _ _))|].
  split; [exact Finj|]. split; [exact Fs|]. split; [exact RF1|].
  intros order2 Gc2 En2 R2 Inv.
  destruct (presentation_independent_gen G H Gc1 (relabel f1 H) Gc1 Gc2 order1 order2 f1 PG PH Hs
              Finj (fun n _ => Fpos n) RF1 (relabelled_exact f1 H) En1 R1 En2 R2 Inv Fsorted)
    as (pairs1 & pairs2 & Hc1' & Hc2 & E1' & E2 & S1 & S2).
  assert (Ec : set_amap (relabel f1 H) = set_amap Hc1') by congruence.
  exists pairs2, (set_amap Hc2). split; [exact E2|]. split; [exact S1|]. rewrite Ec. exact S2.
Qed.

(** in particular when the graph canonicaliser maps every canonical id of the reactant graph to itself *)
Theorem fixed_point_gen (G H Gc1 : mgraph) (order1 : list N) :
  parsed G -> parsed H -> shares_atom G H ->
  enumerates order1 G -> relabelled_by (sigma_of order1) G Gc1 ->
  exists (pairs1 : list (N * N)) (Gc1' Hc1' : mgraph),
    canonicalise_with Gc1 H = Some (Gc1', pairs1, Hc1') /\
    forall (order2 : list N) (Gc2 : mgraph),
      enumerates order2 Gc1' -> relabelled_by (sigma_of order2) Gc1' Gc2 ->
      (forall m, In m (node_ids Gc1') -> sigma_of order2 m = m) ->
      exists (pairs2 : list (N * N)) (Hc2' : mgraph),
        canonicalise_with Gc2 Hc1' = Some (set_amap Gc2, pairs2, Hc2') /\
        same_upto_order (set_amap Gc2) Gc1' /\ same_upto_order Hc2' Hc1'.
Proof.
  intros PG PH Hs En1 R1.
  destruct (fixed_point_maps G H Gc1 order1 PG PH Hs En1 R1) as (pairs1 & Hc1 & f1 & E1 & _ & _ & _ & Fs & RF1 & Hfix).
  exists pairs1, (set_amap Gc1), (set_amap Hc1). split; [exact E1|].
  intros order2 Gc2 En2 R2 Hid. apply (Hfix order2 Gc2 En2 R2).
  intros n I. rewrite Hid; [apply Fs; exact I|].
  rewrite node_ids_set_amap. apply (rel_node_ids f1 G Gc1 RF1). apply in_map. exact I.
Qed.

(** the same when every product atom has a reactant partner *)
Theorem fixed_point (G H Gc1 : mgraph) (order1 : list N) :
  parsed G -> parsed H -> (forall n, In n (node_ids H) -> In n (node_ids G)) -> (exists s, In s (node_ids H)) ->
  enumerates order1 G -> relabelled_by (sigma_of order1) G Gc1 ->
  exists (pairs1 : list (N * N)) (Gc1' Hc1' : mgraph),
    canonicalise_with Gc1 H = Some (Gc1', pairs1, Hc1') /\
    forall (order2 : list N) (Gc2 : mgraph),
      enumerates order2 Gc1' -> relabelled_by (sigma_of order2) Gc1' Gc2 ->
      (forall m, In m (node_ids Gc1') -> sigma_of order2 m = m) ->
      exists (pairs2 : list (N * N)) (Hc2' : mgraph),
        canonicalise_with Gc2 Hc1' = Some (set_amap Gc2, pairs2, Hc2') /\
        same_upto_order (set_amap Gc2) Gc1' /\ same_upto_order Hc2' Hc1'.
Proof.
  intros PG PH Hsub (s & Is) En1 R1. apply (fixed_point_gen G H Gc1 order1); auto. exists s. auto.
Qed.

Lemma ex_ren_inj a b : ex_ren a = ex_ren b -> a = b.
Proof.
  unfold ex_ren.
  destruct (N.eqb_spec a 1) as [->|A1]; [|destruct (N.eqb_spec a 2) as [->|A2]; [|destruct (N.eqb_spec a 7) as [->|A7]]];
    (destruct (N.eqb_spec b 1) as [->|B1]; [|destruct (N.eqb_spec b 2) as [->|B2]; [|destruct (N.eqb_spec b 7) as [->|B7]]]);
    simpl; lia.
Qed.
Example ex_indep_hyps :
  parsed ex_G /\ parsed ex_H /\ (forall n, In n (node_ids ex_H) -> In n (node_ids ex_G)) /\ (exists s, In s (node_ids ex_H)) /\
  (forall a b, ex_ren a = ex_ren b -> a = b) /\ (forall n, In n (node_ids ex_G) -> ex_ren n <> 0%N) /\
  enumerates ex_order ex_G /\ enumerates (map ex_ren ex_order) (set_amap (relabel ex_ren ex_G)) /\
  (forall n, In n (node_ids ex_G) -> sigma_of (map ex_ren ex_order) (ex_ren n) = sigma_of ex_order n).
Proof.
  split; [exact ex_G_parsed|]. split; [exact ex_H_parsed|].
  split; [simpl; intuition|]. split; [exists 1%N; simpl; auto|]. split; [exact ex_ren_inj|].
  split; [intros n I; simpl in I; intuition (subst; discriminate)|]. split; [exact ex_order_enumerates|].
  split.
  - split; [apply C01_OptsProof.nodupNb_spec; reflexivity|]. intros n. simpl. intuition.
  - intros n I. simpl in I. intuition (subst; reflexivity).
Qed.
Example ex_fixed_point_hyps :
  let Gc1' := set_amap (canon_rebuild ex_order ex_G) in
  enumerates [1%N; 2%N; 3%N] Gc1' /\ (forall m, In m (node_ids Gc1') -> sigma_of [1%N; 2%N; 3%N] m = m).
Proof.
  split; [split; [apply C01_OptsProof.nodupNb_spec; reflexivity|intros n; simpl; intuition]|]. intros m I. simpl in I. intuition (subst; reflexivity).
Qed.
