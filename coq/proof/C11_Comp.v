(** C11 — connected components of the model ([components], nx.connected_components order) are the classes of the
    connectivity relation of lib/Reach.v, pairwise disjoint; hence the orbits reported for a disconnected graph
    partition the nodes too.  Stdlib lists. *)
From Coq Require Import List NArith Arith Lia.
From SK Require Import lib.LGraph lib.Reach model.C11_Model proof.C11_Aut proof.C11_WL proof.C11_Main.
Import ListNotations.

Fixpoint pairwise_disjoint (l : list (list N)) : Prop :=
  match l with
  | [] => True
  | c :: r => (forall d, In d r -> forall x, In x c -> ~ In x d) /\ pairwise_disjoint r
  end.

Lemma pairwise_disjoint_eq l : pairwise_disjoint l ->
  forall c1 c2 x, In c1 l -> In c2 l -> In x c1 -> In x c2 -> c1 = c2.
Proof.
  induction l as [|c r IH]; simpl; [tauto|].
  intros [Hd Hr] c1 c2 x [<-|H1] [<-|H2] Hx1 Hx2; auto.
  - exfalso. exact (Hd c2 H2 x Hx1 Hx2).
  - exfalso. exact (Hd c1 H1 x Hx2 Hx1).
  - eapply IH; eauto.
Qed.

Section Comp.
Variable g : graph.
Hypothesis Hwf : wf g.

Notation nb := (nbrs g).

Lemma nbrs_sym u v : In v (nb u) -> In u (nb v).
Proof. rewrite !(nbrs_adj g Hwf). rewrite (adj_sym g v u). tauto. Qed.

Lemma conn_trans a b c : conn nb [a] b -> conn nb [b] c -> conn nb [a] c.
Proof.
  intros Hab Hbc. induction Hbc as [x Hx|u v Hu IH Hv].
  - destruct Hx as [<-|[]]. exact Hab.
  - eapply conn_step; eauto.
Qed.

Lemma conn_sym a b : conn nb [a] b -> conn nb [b] a.
Proof.
  induction 1 as [x Hx|u v Hu IH Hv].
  - destruct Hx as [<-|[]]. apply conn_seed. left. reflexivity.
  - apply (conn_trans v u a); [|exact IH].
    eapply conn_step; [apply conn_seed; left; reflexivity | apply nbrs_sym; exact Hv].
Qed.

Lemma comp_of_spec u : In u (node_ids g) -> forall x, In x (comp_of g u) <-> conn nb [u] x.
Proof.
  intros Hu x. unfold comp_of.
  destruct (saturate nb (S (length (gnodes g))) [u]) as [R|] eqn:E.
  - apply (saturate_spec (nbr := nb) (seeds := [u]) (S (length (gnodes g))) [u]); [| |exact E].
    + intros y Hy. apply conn_seed. exact Hy.
    + auto.
  - exfalso. revert E. apply (@saturate_fuel (node_ids g) nb (nbrs_nodes g Hwf)).
    + constructor; [intros [] | constructor].
    + intros y [<-|[]]. exact Hu.
    + unfold node_ids. rewrite map_length. simpl. lia.
Qed.

Definition closed (seen : list N) : Prop := forall x y, In x seen -> conn nb [x] y -> In y seen.

Lemma comps_go_spec todo : forall seen, closed seen -> incl todo (node_ids g) ->
  (forall c x, In c (comps_go g todo seen) -> In x c -> ~ In x seen) /\
  (forall c, In c (comps_go g todo seen) -> exists u, In u todo /\ c = comp_of g u) /\
  pairwise_disjoint (comps_go g todo seen).
Proof.
  induction todo as [|u r IH]; intros seen Hcl Hincl; simpl.
  - repeat split; try tauto.
  - assert (Hr : incl r (node_ids g)) by (intros y Hy; apply Hincl; right; exact Hy).
    assert (Hu : In u (node_ids g)) by (apply Hincl; left; reflexivity).
    destruct (LGraph.mem u seen) eqn:E.
    + destruct (IH seen Hcl Hr) as (H1 & H2 & H3). split; [exact H1|]. split; [|exact H3].
      intros c Hc. destruct (H2 c Hc) as (w & Hw & ->). exists w. split; [right; exact Hw | reflexivity].
    + assert (Hnotin : ~ In u seen) by (intros H; apply LGraph.mem_spec in H; congruence).
      assert (Hcl' : closed (comp_of g u ++ seen)).
      { intros x y Hx Hxy. apply in_or_app. apply in_app_or in Hx. destruct Hx as [Hx|Hx].
        - left. apply (comp_of_spec u Hu). apply (comp_of_spec u Hu) in Hx. eapply conn_trans; eauto.
        - right. eapply Hcl; eauto. }
      destruct (IH (comp_of g u ++ seen) Hcl' Hr) as (H1 & H2 & H3).
      split; [|split].
      * intros c x [<-|Hc] Hx Hs.
        -- apply (comp_of_spec u Hu) in Hx. apply Hnotin. apply (Hcl x u Hs). apply conn_sym. exact Hx.
        -- apply (H1 c x Hc Hx). apply in_or_app. right. exact Hs.
      * intros c [<-|Hc]; [exists u; split; [left; reflexivity | reflexivity]|].
        destruct (H2 c Hc) as (w & Hw & ->). exists w. split; [right; exact Hw | reflexivity].
      * simpl. split; [|exact H3].
        intros d Hd x Hx Hxd. apply (H1 d x Hd Hxd). apply in_or_app. left. exact Hx.
Qed.

Lemma components_spec :
  (forall c, In c (components g) -> exists u, In u (node_ids g) /\ forall x, In x c <-> conn nb [u] x) /\
  pairwise_disjoint (components g) /\
  (forall u, In u (node_ids g) -> exists c, In c (components g) /\ In u c).
Proof.
  destruct (comps_go_spec (node_ids g) [] (fun x y H => match H with end) (incl_refl _)) as (_ & H2 & H3).
  split; [|split; [exact H3 | apply components_cover]].
  intros c Hc. destruct (H2 c Hc) as (u & Hu & ->). exists u. split; [exact Hu | apply comp_of_spec; exact Hu].
Qed.

End Comp.

Lemma induced_nodes_in (g : graph) c u : In u (node_ids (induced_sub g c)) -> In u (node_ids g) /\ In u c.
Proof.
  unfold node_ids, induced_sub. simpl. rewrite in_map_iff. intros ([u' a] & E & Hin). simpl in E. subst u'.
  apply filter_In in Hin. destruct Hin as [Hin Hm]. simpl in Hm. apply LGraph.mem_spec in Hm.
  split; [|exact Hm]. apply in_map_iff. exists (u, a). auto.
Qed.

(** the reported orbits partition the nodes, connected or not; in the disconnected case "same orbit" is meant inside
    the component (component swaps excluded) *)
Lemma orbits_partition_all (fn : nlab -> N) (fe : elab -> N) (g : graph) : wf g ->
  let O := a_orbits (analyze fn fe g) in
  (forall u, In u (node_ids g) -> exists o, In o O /\ In u o) /\
  (forall o u, In o O -> In u o -> In u (node_ids g)) /\
  (forall o1 o2 u, In o1 O -> In o2 O -> In u o1 -> In u o2 -> o1 = o2) /\
  NoDup O /\
  ((1 < length (components g))%nat ->
     forall o u v, In o O -> In u o ->
       (In v o <-> exists c, In c (components g) /\ In u c /\ same_orbit fn fe (induced_sub g c) u v)).
Proof.
  intros Hwf O. pose proof (wf_simple g Hwf) as Hg.
  destruct (components_spec g Hwf) as (_ & Hdisj & _).
  assert (Hcomp : forall c, exact_orbits fn fe (induced_sub g c) (fst (analyze_component fn fe (induced_sub g c)))).
  { intros c. apply analyze_component_orbits. apply induced_simple. exact Hg. }
  split; [apply orbits_cover; exact Hg|].
  destruct (le_lt_dec (length (components g)) 1) as [Hc|Hc].
  - destruct (analyze_orbits_connected fn fe g Hg Hc) as (_ & H2 & H3 & H4 & _).
    split; [exact H2|]. split; [exact H3|]. split; [exact H4|]. intros Hc'. lia.
  - pose proof (analyze_orbits_disconnected fn fe g Hg Hc) as HO. fold O in HO.
    assert (Hin_c : forall o c u, In o (fst (analyze_component fn fe (induced_sub g c))) -> In u o -> In u (node_ids g) /\ In u c).
    { intros o c u Ho Hu. destruct (Hcomp c) as (_ & H2 & _). apply induced_nodes_in. eapply H2; eauto. }
    split; [|split; [|split]].
    + intros o u Ho Hu. apply HO in Ho. destruct Ho as (c & _ & Ho). apply (Hin_c o c u Ho Hu).
    + intros o1 o2 u Ho1 Ho2 Hu1 Hu2. apply HO in Ho1. apply HO in Ho2.
      destruct Ho1 as (c1 & Hc1 & Ho1). destruct Ho2 as (c2 & Hc2 & Ho2).
      assert (c1 = c2).
      { apply (pairwise_disjoint_eq _ Hdisj c1 c2 u Hc1 Hc2); [apply (Hin_c o1 c1 u Ho1 Hu1) | apply (Hin_c o2 c2 u Ho2 Hu2)]. }
      subst c2. destruct (Hcomp c1) as (_ & _ & H3 & _). eapply H3; eauto.
    + apply analyze_orbits_nodup. exact Hg.
    + intros _ o u v Ho Hu. apply HO in Ho. destruct Ho as (c & Hcin & Ho).
      destruct (Hcomp c) as (_ & _ & _ & _ & H5). split.
      * intros Hv. exists c. split; [exact Hcin|]. split; [apply (Hin_c o c u Ho Hu)|]. apply (H5 o u v Ho Hu). exact Hv.
      * intros (c' & Hc' & Huc' & Hrel).
        assert (c' = c) by (apply (pairwise_disjoint_eq _ Hdisj c' c u Hc' Hcin Huc'); apply (Hin_c o c u Ho Hu)).
        subst c'. apply (H5 o u v Ho Hu). exact Hrel.
Qed.

(** ---------- non-vacuity ---------- *)
(** the VF2 contract is satisfiable by a list other than the model's own: the same maps in the opposite order *)
Example ex_vf2 :
  let E := rev (auts n_exact e_order ex_path) in
  E <> auts n_exact e_order ex_path /\ NoDup E /\
  (forall m, In m E <-> exists s, is_automorphism n_exact e_order ex_path s /\ m = aut_pairs ex_path s) /\
  analyze_component_with (node_ids ex_path) E = ([[2]; [1; 3]]%N, 2%N).
Proof.
  pose proof (wf_simple _ ex_path_wf) as Hg.
  split; [vm_compute; discriminate|]. split; [apply NoDup_rev, auts_nodup; exact Hg|].
  split; [|vm_compute; reflexivity].
  intros m. rewrite <- in_rev. apply auts_listing. exact Hg.
Qed.

(** a disconnected graph: two components, the orbit of 1 is {1,2} through an automorphism of the component {1,2} *)
Example ex_partition :
  wf ex_disc /\ (1 < length (components ex_disc))%nat /\ components ex_disc = [[2; 1]; [5]]%N /\
  a_orbits (analyze n_exact e_order ex_disc) = [[1; 2]; [5]]%N /\
  same_orbit n_exact e_order (induced_sub ex_disc [2; 1]%N) 1 2.
Proof.
  split; [exact ex_disc_wf|]. split; [vm_compute; lia|]. split; [vm_compute; reflexivity|].
  split; [vm_compute; reflexivity|].
  exists [(2, 1); (1, 2)]%N. split; [vm_compute; tauto | right; left; reflexivity].
Qed.

(** the premises of the function-level pruning theorem hold for the example rule centre and its matches *)
Example ex_prune_aut :
  simple_graph ex_path /\
  (forall x p h, In x ex_raw -> In (p, h) ((fun m : mapping => m) x) -> In p (node_ids ex_path)) /\
  length (prune (fun m : mapping => m) ex_path ex_raw) = 2%nat.
Proof.
  split; [apply wf_simple, ex_path_wf|]. split; [|vm_compute; reflexivity].
  intros x p h. apply dom_ok_spec. vm_compute. reflexivity.
Qed.

(** de-duplication with orbit information: something is dropped, the order is kept; an uncovered host node is the
    ValueError path ([None]); without orbit information the list is returned unchanged *)
Definition ex_two : list mapping := [[(1, 7); (2, 8)]; [(1, 8); (2, 7)]; [(1, 7); (2, 9)]]%N.
Example ex_dedup_anchor :
  dedup_anchor (fun m : mapping => m) ex_two (Some [[1; 2]]%N) [] None = Some [[(1, 7); (2, 8)]; [(1, 7); (2, 9)]]%N /\
  dedup_anchor (fun m : mapping => m) ex_two None [] (Some [[7; 8]]%N) = None /\
  dedup_anchor (fun m : mapping => m) ex_two None [] None = Some ex_two.
Proof. vm_compute. repeat split. Qed.

(** a result function satisfying both premises of C11_prune_same_results for every rule centre: the set of host
    nodes a match covers; on [ex_raw] the pruned-away match has the value of the kept one *)
Definition host_set (m : mapping) : list N := canonN (map snd m).
Example ex_same_results :
  (forall m m', (forall ph, In ph m <-> In ph m') -> host_set m = host_set m') /\
  (forall s m, host_set (act s m) = host_set m) /\
  map host_set ex_raw = [[7; 8; 9]; [7; 8; 9]; [6; 7; 8]]%N /\
  map host_set (prune (fun m : mapping => m) ex_path ex_raw) = [[7; 8; 9]; [6; 7; 8]]%N.
Proof.
  split; [|split; [|split; vm_compute; reflexivity]].
  - intros m m' H. unfold host_set. apply canonN_ext. intros y. rewrite !in_map_iff.
    split; intros (ph & E & Hin); exists ph; (split; [exact E | apply H; exact Hin]).
  - intros s m. unfold host_set, act. rewrite map_map. reflexivity.
Qed.
