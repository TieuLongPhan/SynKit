(** C10 — proofs: NXToGML.transform(attributes=[...]).  Whatever attributes are compared — as long as "charge" is
    among them — the rule reads back to the same ITS: moving more atoms from the context section to left/right (because their
    hcount, aromaticity, ... differ) loses nothing. *)
From Coq Require Import String List NArith ZArith Bool Lia.
From SK Require Import lib.LGraph lib.StrJoin model.C10_Model proof.C10_Proof proof.C10_Views proof.C10_Build
  proof.C10_Copy proof.C10_GmlRead proof.C10_GmlWrite proof.C10_Hydrogen proof.C10_HRound proof.C10_GmlEH.
Import ListNotations.
Local Open Scope Z_scope.

Lemma mem_find_changed_sel s (Lg Rg : gr) n : NoDup (node_ids Lg) ->
  mem n (find_changed_sel s Lg Rg) =
  match label Lg n with
  | Some a => match label Rg n with Some b => natt_diff s a b | None => false end
  | None => false
  end.
Proof.
  intros Hnd. unfold find_changed_sel.
  rewrite (flat_map_ext _ (fun p => if match label Rg (fst p) with Some b => natt_diff s (snd p) b | None => false end
                                    then [fst p] else [])).
  - rewrite (mem_flat_keys _ n (gnodes Lg) Hnd). fold (label Lg n). destruct (label Lg n); reflexivity.
  - intros [k a]. simpl. destruct (label Rg k) as [b|]; reflexivity.
Qed.

Theorem attributes_roundtrip c s : its_ok c = true -> k_ch s = true ->
  let I' := snd (gml_to_nx (nx_to_gml_sel s (fst (its_decompose c)) (snd (its_decompose c)) c false false)) in
  (forall n, has_node I' n = has_node c n) /\
  (forall n a, label c n = Some a ->
     label I' n = Some (gml_node n (tg_el (tG_of a)) (tg_ch (tG_of a)) (tg_ch (tH_of a)))) /\
  (forall u v, adj I' u v = adj c u v).
Proof.
  intros H Hk. pose proof (its_ok_IOK c H) as Hok. rewrite its_decompose_sides by exact Hok. unfold nx_to_gml_sel. cbv iota zeta. simpl fst. simpl snd.
  apply (gml_pipeline_ch c _ _ _ _ Hok (side_graph_like c false Hok) (side_graph_like c true Hok)).
  - apply ctx_like_plain, (iok_gwf c Hok).
  - intros n a L M. rewrite mem_find_changed_sel in M by apply (gwf_nd _ (side_graph_gwf c false)).
    rewrite !side_graph_label in M by exact Hok. rewrite L in M. simpl in M. unfold natt_diff in M. rewrite Hk in M.
    rewrite !orb_false_iff in M. destruct M as [[_ M] _].
    rewrite !a_ch_side in M. simpl in M. apply negb_false_iff, Z.eqb_eq in M. exact M.
Qed.

(** non-vacuity: with attributes = [charge, hcount] atom 10 of ex_centre (hcount 1 before, 0 after) moves out of the context *)
Definition ex_attr_rule : grec :=
  nx_to_gml_sel (AS false false true true false) (fst (its_decompose ex_centre)) (snd (its_decompose ex_centre)) ex_centre false false.
Example attributes_roundtrip_ex :
  ex_attr_rule <> its_to_gml ex_centre false false false /\
  adj (snd (gml_to_nx ex_attr_rule)) 20%N 30%N = adj ex_centre 20%N 30%N /\
  label (snd (gml_to_nx ex_attr_rule)) 10%N = Some (gml_node 10%N (s2l "C") 0 0).
Proof. split; [vm_compute; discriminate|vm_compute; auto]. Qed.
