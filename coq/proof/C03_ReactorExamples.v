(** C03 — non-vacuity of the reactor state machine theorems (proof/C03_ReactorProof.v). *)
From Coq Require Import List NArith ZArith Bool.
From SK Require Import lib.Tok lib.LGraph model.C03_Model model.C03_Order model.C03_Reactor proof.C03_ReactorProof proof.C03_Examples.
Import ListNotations.
Local Open Scope Z_scope.

(** strings *)
Definition s_C : str := [67%N].                 (* "C" *)
Definition s_CO : str := [67%N; 79%N].          (* "CO" *)
Example ex_split : split_gt (join_gt s_C s_CO) = [s_C; s_CO] /\
                   reverse_reaction (join_gt s_C s_CO) = join_gt s_CO s_C /\
                   last_part (join_gt s_C s_CO) = s_CO /\
                   split_gt [67%N; 62%N; 62%N; 62%N; 79%N] = [[67%N]; [62%N; 79%N]] /\      (* "C>>>O".split(">>") = ["C", ">O"] *)
                   reverse_reaction [67%N] = [67%N] /\                                       (* no ">>": returned as is *)
                   split_gt [] = [[]].
Proof. vm_compute. repeat split. Qed.

(** proton transfer O-H . N >> O- . H-N+ (rule with h_pairs) on CH3OH . NH3, default mode, forwards *)
Definition ex_ser : nat -> its -> option str * option str := fun i _ => match i with O => (Some s_CO, Some s_C) | _ => (None, Some s_C) end.
Definition ex_inp (invert : bool) : rin :=
  RI invert true ex_host_h (Some (ex_rc_h, fst (its_decompose ex_rc_h), snd (its_decompose ex_rc_h))) [(ex_m_h, None)] [] ex_ser.

Example ex_nocrash : nocrash (ex_inp false) /\ nocrash (ex_inp true).
Proof. split; intros _; vm_compute; discriminate. Qed.

Definition ex_script : list rop := [Osmiles; Oits; Ocount; Osmarts; Oits; Omappings; Orule; Osmiles].
Example ex_reads_stable : run_ops (ex_inp false) rs0 ex_script = map (spec_val (ex_inp false)) ex_script.
Proof. exact (reads_stable (ex_inp false) ex_script (proj1 ex_nocrash)). Qed.

(** ... and the values say something: one result, the returned reaction is "CO>>C" forwards and "C>>CO" backwards,
    smiles_list extracts the last part *)
Example ex_reads_values :
  spec_val (ex_inp false) Osmarts = Vstrs [join_gt s_CO s_C] /\ spec_val (ex_inp true) Osmarts = Vstrs [join_gt s_C s_CO] /\
  spec_val (ex_inp false) Osmiles = Vstrs [s_C] /\ spec_val (ex_inp true) Osmiles = Vstrs [s_CO] /\
  spec_val (ex_inp false) Ocount = Vnat 1 /\
  spec_val (ex_inp false) Oits = Vits [ex_T_h'].
Proof. vm_compute. repeat split. Qed.

Example ex_smarts_of_spec :
  smarts_of true ex_ser [ex_T_h'; ex_T_h'] = [join_gt s_C s_CO] /\ map last_part (smarts_of true ex_ser [ex_T_h'; ex_T_h']) = [s_CO].
Proof. vm_compute. split; reflexivity. Qed.

(** a rule whose only group has a hydrogen to give and nobody to take it: _explicit_h raises.  Replayed on the
    implementation (notes/C03.md): read 0 raises StopIteration, reads 1 and 2 return one graph without the explicit stage. *)
Definition ex_rc_crash : its := LG [(1%N, IN (at_ Oo 1 0) (at_ Oo 0 (-1)) 1 (Some [1%N]))] [].
Definition ex_host_crash : hostg := LG [(1%N, at_ C 3 0); (2%N, at_ Oo 1 0)] [(1%N, 2%N, 2)].
Definition ex_inp_crash : rin :=
  RI false true ex_host_crash (Some (ex_rc_crash, fst (its_decompose ex_rc_crash), snd (its_decompose ex_rc_crash))) [([(1%N, 2%N)], None)] [] ex_ser.
Example ex_reads_after_crash :
  explicit_all (spec_glued ex_inp_crash) = None /\ length (spec_glued ex_inp_crash) = 1%nat /\
  run_ops ex_inp_crash rs0 [Oits; Oits; Oits] = [Vraise; Vits (map fst (spec_glued ex_inp_crash)); Vits (map fst (spec_glued ex_inp_crash))].
Proof.
  assert (H : explicit_all (spec_glued ex_inp_crash) = None) by reflexivity.
  split; [exact H|]. split; [reflexivity|].
  exact (reads_after_crash ex_inp_crash _ _ _ eq_refl eq_refl H).
Qed.

(** a rule that keeps an explicit X-H hydrogen in its left side: the flag is set by the first read, whatever it is *)
Definition ex_l_xh : molg := LG [(1%N, MN C false 0 0 None); (2%N, MN EL_H false 0 0 None)] [(1%N, 2%N, 2)].
Definition ex_rc_xh : its :=
  LG [(1%N, IN (at_ C 0 0) (at_ C 0 (-1)) 0 None); (2%N, IN (at_ EL_H 0 0) (at_ EL_H 0 1) 0 None)] [(1%N, 2%N, (2, 0, 2))].
Definition ex_host_xh : hostg := LG [(5%N, at_ C 1 0)] [].
Definition ex_inp_xh : rin :=
  RI false false ex_host_xh (Some (ex_rc_xh, ex_l_xh, ex_l_xh)) [([(1%N, 5%N)], Some [[(1%N, 5%N); (2%N, 6%N)]])] [] ex_ser.
Example ex_fresh_its_route :
  has_XH ex_l_xh = true /\
  (forall st' v, step ex_inp_xh rs0 Oits = (st', v) -> s_flag st' = true) /\
  (* the expanded route was taken: the result has the expanded hydrogen 6 and the C-H bond broken on the product side *)
  option_map (fun gs : list its => map (fun g : its => node_ids g) gs) (spec_its ex_inp_xh) = Some [[5%N; 6%N]] /\
  option_map (fun gs : list its => map (fun g : its => adj g 5%N 6%N) gs) (spec_its ex_inp_xh) = Some [Some (2, 0, 2)].
Proof.
  split; [reflexivity|]. split; [|split; reflexivity].
  intros st' v H. assert (Hn : nocrash ex_inp_xh) by (intros C0; discriminate).
  exact (proj1 (fresh_its_route ex_inp_xh _ _ _ eq_refl Hn st' v H)).
Qed.

(** the capstone (proof/C03_Capstone.v): hypotheses hold on the two example reactors, and the conclusion says something *)
From SK Require Import proof.C03_Proof proof.C03_ReactorSpec proof.C03_Capstone.
Example ex_capstone_hyps : hyps_okb (ex_inp false) = true /\ hyps_okb ex_inp_xh = true /\
                           spec_its (ex_inp false) = Some [ex_T_h'] /\ balancedb ex_rc_h = true.
Proof. vm_compute. repeat split. Qed.
Example ex_capstone : instance_of ex_host_h ex_rc_h ex_T_h'.
Proof.
  apply (its_list_sound (ex_inp false) ex_rc_h _ _ [ex_T_h'] eq_refl); try reflexivity. left. reflexivity.
Qed.
Example ex_capstone_reads : forall g, In g [ex_T_h'] -> instance_of ex_host_h ex_rc_h g.
Proof.
  apply (reads_return_instances (ex_inp false) ex_rc_h _ _ eq_refl eq_refl eq_refl eq_refl (proj1 ex_nocrash) [Osmiles; Oits; Oits]).
  vm_compute. right. left. reflexivity.
Qed.

(** the default mode from the template (its_list_default_mode): O-H . N >> O . H-N written with an explicit hydrogen, on
    CH3OH . NH3; the template condition holds (proof/C03_Examples.v, ex_tpl_condition) *)
Definition ex_r_s : molg := match synrule ex_tpl_x true with Some t => snd t | None => LG [] [] end.
Definition ex_inp_d : rin := RI false true ex_host_h (synrule ex_tpl_x true) [(ex_m_s, None)] [] ex_ser.
Lemma ex_tpl_x_el : forall k a, In (k, a) (gnodes ex_tpl_x) -> a_el (iH a) = a_el (iG a).
Proof. intros k a I. simpl in I. destruct I as [I|[I|[I|[]]]]; inversion I; reflexivity. Qed.
Example ex_default_mode_hyps :
  synrule ex_tpl_x true = Some (ex_rc_s, ex_l_s, ex_r_s) /\ hyps_okb ex_inp_d = true /\
  option_map (fun gs : list its => map (fun g : its => length (gnodes g)) gs) (spec_its ex_inp_d) = Some [4%nat].
Proof. vm_compute. repeat split. Qed.
Example ex_default_mode : forall gs g, spec_its ex_inp_d = Some gs -> In g gs ->
  forall e, elem_count e (fst (its_decompose g)) = elem_count e (snd (its_decompose g)).
Proof.
  intros gs g Hs Ig.
  exact (proj1 (its_list_default_mode ex_inp_d ex_tpl_x ex_rc_s ex_l_s ex_r_s gs eq_refl (proj1 ex_default_mode_hyps)
            eq_refl ex_tpl_x_el eq_refl ex_tpl_condition eq_refl eq_refl eq_refl Hs g Ig)).
Qed.

(** the matcher-contract form: all hypotheses as one boolean on the example reactors *)
Example ex_matcher_hyps : matcher_hyps_okb (i_rule (ex_inp false)) ex_host_h (i_calls (ex_inp false)) = true /\
                          matcher_hyps_okb (i_rule ex_inp_d) ex_host_h (i_calls ex_inp_d) = true /\
                          left_of_rcb ex_rc_s ex_l_s = true /\ rule_link_okb (synrule ex_tpl_x true) = true.
Proof. vm_compute. repeat split. Qed.
Example ex_capstone_matcher : instance_of ex_host_h ex_rc_h ex_T_h'.
Proof. apply (its_list_sound_matcher (ex_inp false) ex_rc_h _ _ [ex_T_h'] eq_refl (proj1 ex_matcher_hyps) eq_refl). left. reflexivity. Qed.

(** the default mode end to end from the template (proof/C03_LinkDefault.v): hypotheses on ex_tpl_x, the substrate and the
    matcher's contract only *)
From SK Require Import proof.C03_LinkDefault.
Example ex_default_end_to_end_hyps :
  wf_rcb ex_tpl_x = true /\ edges_closedb ex_tpl_x = true /\ wf_hostb ex_host_h = true /\
  forallb (call_okm ex_host_h ex_l_s) (i_calls ex_inp_d) = true /\
  left_of_rcb ex_rc_s ex_l_s = true /\ edges_closedb ex_rc_s = true /\ wf_rcb ex_rc_s = true.
Proof. vm_compute. repeat split. Qed.
Example ex_default_end_to_end : forall gs g, spec_its ex_inp_d = Some gs -> In g gs ->
  instance_of ex_host_h ex_rc_s g /\ total_charge (fst (its_decompose g)) = total_charge (snd (its_decompose g)).
Proof.
  intros gs g Hs Ig.
  pose proof ex_tpl_x_el as Hel.
  destruct (its_list_default_end_to_end ex_inp_d ex_tpl_x ex_rc_s ex_l_s ex_r_s gs eq_refl (proj1 ex_default_mode_hyps) Hel
              eq_refl eq_refl ex_tpl_condition eq_refl eq_refl Hs g Ig) as (A & _ & B). auto.
Qed.

(** the implicit-template mode end to end (proof/C03_LinkImplicit.v), forwards (proton transfer written with counts) and
    backwards (quaternisation applied to CH3NH3+ . Br-) *)
From SK Require Import proof.C03_LinkImplicit.
Definition ex_inp_bwd : rin := RI true false ex_host_bwd (synrule (invert_template ex_rc) false) [(ex_m, None)] [] ex_ser.
Example ex_implicit_hyps :
  i_rule (ex_inp false) = synrule ex_rc_h false /\ wf_rcb ex_rc_h = true /\ edges_closedb ex_rc_h = true /\
  forallb (call_okm ex_host_h (fst (its_decompose ex_rc_h))) (i_calls (ex_inp false)) = true /\
  wf_rcb ex_rc = true /\ edges_closedb ex_rc = true /\ wf_hostb ex_host_bwd = true /\
  forallb (call_okm ex_host_bwd (fst (its_decompose (invert_template ex_rc)))) (i_calls ex_inp_bwd) = true /\
  spec_its ex_inp_bwd = Some [ex_T_bwd] /\ balancedb ex_rc = true.
Proof. vm_compute. repeat split. Qed.
Example ex_implicit_end_to_end :
  instance_of ex_host_h ex_rc_h ex_T_h' /\
  instance_of ex_host_bwd (invert_template ex_rc) ex_T_bwd /\
  total_charge (fst (its_decompose ex_T_bwd)) = total_charge (snd (its_decompose ex_T_bwd)).
Proof.
  destruct ex_implicit_hyps as (H1 & H2 & H3 & H4 & H5 & H6 & H7 & H8 & H9 & H10).
  split; [|].
  - exact (proj1 (its_list_implicit_end_to_end false (ex_inp false) ex_rc_h [ex_T_h'] H1 H2 H3 eq_refl H4 eq_refl ex_T_h' (or_introl eq_refl))).
  - destruct (its_list_implicit_end_to_end true ex_inp_bwd ex_rc [ex_T_bwd] eq_refl H5 H6 H7 H8 H9 ex_T_bwd (or_introl eq_refl)) as [A B].
    split; [exact A|exact (proj2 (B H10))].
Qed.

(** the default mode BACKWARDS from the template as written (proof/C03_LinkBackward.v): O-H . N >> O . H-N applied backwards
    to CH3OH . NH3 (N gives a hydrogen to O) *)
From SK Require Import proof.C03_LinkBackward.
Definition ex_rule_b : triple := match synrule (invert_template ex_tpl_x) true with Some t => t | None => (LG [] [], LG [] [], LG [] []) end.
Definition ex_inp_b : rin := RI true true ex_host_h (synrule (invert_template ex_tpl_x) true) [(ex_m_s, None)] [] ex_ser.
Example ex_backward_default_hyps :
  synrule (invert_template ex_tpl_x) true = Some (fst (fst ex_rule_b), snd (fst ex_rule_b), snd ex_rule_b) /\
  forallb (call_okm ex_host_h (snd (fst ex_rule_b))) (i_calls ex_inp_b) = true /\
  option_map (fun gs : list its => map (fun g : its => (length (gnodes g), adj g 3%N 4%N, adj g 4%N 2%N)) gs) (spec_its ex_inp_b)
    = Some [(4%nat, Some (2, 0, 2), Some (0, 2, -2))].
Proof. vm_compute. repeat split. Qed.
Example ex_backward_default : forall gs g, spec_its ex_inp_b = Some gs -> In g gs ->
  forall e, elem_count e (fst (its_decompose g)) = elem_count e (snd (its_decompose g)).
Proof.
  intros gs g Hs Ig.
  pose proof ex_tpl_x_el as Hel.
  destruct ex_backward_default_hyps as (H1 & H2 & _).
  (* the equation for [i_rule] is given with its right-hand side: left to unification, [synrule] is evaluated *)
  exact (proj1 (proj2 (its_list_default_end_to_end_backward ex_inp_b ex_tpl_x _ _ _ gs (eq_refl (synrule (invert_template ex_tpl_x) true)) H1 Hel eq_refl eq_refl ex_tpl_condition
                         eq_refl H2 Hs g Ig))).
Qed.

(** a SynRule object (prepared in the default mode from ex_tpl_x) applied backwards: the prepared rule graph is inverted and
    used as it is *)
Definition ex_inp_ob : rin := RI true true ex_host_h (wrap_template_rule true false (ex_rc_s, ex_l_s, ex_r_s)) [(ex_m_s, None)] [] ex_ser.
Example ex_synrule_object_backward_hyps :
  forallb (call_okm ex_host_h (fst (its_decompose (invert_template ex_rc_s)))) (i_calls ex_inp_ob) = true /\
  (* the inverted prepared rule carries no h_pairs: the hydrogen moves as COUNTS (N 3 -> 2, O 1 -> 2), no H atom is re-materialised *)
  option_map (fun gs : list its => map (fun g : its => (length (gnodes g),
                                                        option_map (fun a => (a_hc (iG a), a_hc (iH a))) (label g 3%N),
                                                        option_map (fun a => (a_hc (iG a), a_hc (iH a))) (label g 2%N))) gs) (spec_its ex_inp_ob)
    = Some [(3%nat, Some (3, 2), Some (1, 2))].
Proof. vm_compute. repeat split. Qed.
Example ex_synrule_object_backward : forall gs g, spec_its ex_inp_ob = Some gs -> In g gs ->
  instance_of ex_host_h (invert_template ex_rc_s) g /\ total_charge (fst (its_decompose g)) = total_charge (snd (its_decompose g)).
Proof.
  intros gs g Hs Ig.
  pose proof ex_tpl_x_el as Hel.
  destruct (its_list_synrule_object_backward false ex_inp_ob ex_tpl_x ex_rc_s ex_l_s ex_r_s gs (proj1 ex_default_mode_hyps) (eq_refl (wrap_template_rule true false (ex_rc_s, ex_l_s, ex_r_s))) Hel
              eq_refl eq_refl eq_refl (proj1 ex_synrule_object_backward_hyps) Hs g Ig) as [A B].
  split; [exact A|exact (proj2 (B ex_tpl_condition))].
Qed.

(** the template-side hypotheses as one boolean: true on ex_tpl_x; false on a template whose stripped hydrogen has no
    partner on the product side (O-H >> O . H: the hydrogen leaves) *)
Example ex_default_tpl_okb :
  default_tpl_okb ex_tpl_x = true /\ removedR ex_tpl_x = [2%N] /\ keptK ex_tpl_x = [1%N; 3%N] /\
  default_tpl_okb (LG [(1%N, same (at_ Oo 0 0)); (2%N, same (at_ EL_H 0 0)); (3%N, same (at_ Nn 0 0))]
                      [(1%N, 2%N, (2, 0, 2)); (2%N, 3%N, (0, 2, -2)); (1%N, 3%N, (0, 0, 0))]) = true /\
  default_tpl_okb (LG [(1%N, same (at_ Oo 0 0)); (2%N, same (at_ EL_H 0 0)); (3%N, same (at_ Nn 0 0))]
                      [(1%N, 2%N, (2, 0, 2)); (2%N, 3%N, (2, 2, 0))]) = false.
Proof. vm_compute. repeat split. Qed.
Example ex_default_bool : forall gs g, spec_its ex_inp_b = Some gs -> In g gs ->
  total_charge (fst (its_decompose g)) = total_charge (snd (its_decompose g)).
Proof.
  intros gs g Hs Ig. destruct ex_backward_default_hyps as (H1 & H2 & _).
  exact (proj2 (proj2 (its_list_default_bool true ex_inp_b ex_tpl_x _ _ _ gs (proj1 ex_default_tpl_okb) (eq_refl (synrule (invert_template ex_tpl_x) true)) H1 eq_refl H2 Hs g Ig))).
Qed.

(** no crash (proof/C03_NoCrash.v, C03_Total.v) *)
From SK Require Import proof.C03_NoCrash proof.C03_Total.
(** the graph glued from the rule prepared from ex_tpl_x on CH3OH . NH3: its one group {2, 3} is exact, _explicit_h cannot
    raise (default_glued_exact builds the ledger: hydrogen 2 of the template leaves the image of atom 1 and joins that of 3) *)
Example ex_default_glued_exact :
  pairs_exactb ex_T_s = true /\ grouped ex_T_s 2%N = true /\ dl_of ex_T_s 2%N = 1 /\ dl_of ex_T_s 3%N = -1 /\
  explicit_h_ord sort_N ex_T_s <> None.
Proof.
  pose proof ex_tpl_x_el as Hel.
  destruct ex_default_changed_bonds as (_ & H2 & H3 & H4 & _).
  destruct (default_glued_exact ex_tpl_x ex_rc_s ex_l_s ex_r_s ex_host_h ex_m_s ex_T_s eq_refl Hel eq_refl (proj1 ex_default_mode_hyps)
              ex_tpl_condition H2 H3 H4) as (A & _ & C).
  split; [exact A|]. split; [reflexivity|]. split; [reflexivity|]. split; [reflexivity|].
  apply C; [intros; apply in_sort_N_iff|intros; apply nodup_sort_N; assumption].
Qed.
Example ex_default_reactor_total :
  nocrash ex_inp_d /\ nocrash ex_inp_b /\
  run_ops ex_inp_b rs0 [Osmiles; Oits; Oits; Osmarts] = map (spec_val ex_inp_b) [Osmiles; Oits; Oits; Osmarts] /\
  exists gs, spec_its ex_inp_b = Some gs.
Proof.
  destruct ex_backward_default_hyps as (H1 & H2 & _).
  destruct (default_reactor_total true ex_inp_b ex_tpl_x _ _ _ (proj1 ex_default_tpl_okb) (eq_refl (synrule (invert_template ex_tpl_x) true)) H1 eq_refl H2) as (A & B & C & _).
  destruct ex_default_mode_hyps as (F1 & _).
  destruct (default_reactor_total false ex_inp_d ex_tpl_x _ _ _ (proj1 ex_default_tpl_okb) (eq_refl (synrule ex_tpl_x true)) F1 eq_refl (proj1 (proj2 (proj2 (proj2 ex_default_end_to_end_hyps))))) as (A' & _).
  split; [exact A'|]. split; [exact A|]. split; [exact (B _)|exact C].
Qed.

(** no pair ids: _explicit_h is the identity (the SynRule object of ex_tpl_x applied backwards) *)
Example ex_no_pairs :
  nocrash ex_inp_ob /\ spec_its ex_inp_ob = Some (map fst (spec_glued ex_inp_ob)) /\ length (spec_glued ex_inp_ob) = 1%nat /\
  explicit_h_ord sort_N (invert_template ex_rc_s) = Some (invert_template ex_rc_s, []).
Proof.
  pose proof ex_tpl_x_el as Hel.
  destruct (synrule_object_backward_total false ex_inp_ob ex_tpl_x ex_rc_s ex_l_s ex_r_s (proj1 ex_default_mode_hyps) (eq_refl (wrap_template_rule true false (ex_rc_s, ex_l_s, ex_r_s))) Hel
              eq_refl eq_refl eq_refl (proj1 ex_synrule_object_backward_hyps)) as (A & _ & C).
  split; [exact A|]. split; [exact C|]. split; [reflexivity|]. apply explicit_h_no_pairs. apply invert_no_pairs.
Qed.

(** the implicit-template mode, total: backward quaternisation *)
Example ex_implicit_total : nocrash ex_inp_bwd /\ run_ops ex_inp_bwd rs0 [Osmarts; Oits] = map (spec_val ex_inp_bwd) [Osmarts; Oits].
Proof.
  destruct ex_implicit_hyps as (_ & _ & _ & _ & H5 & H6 & H7 & H8 & _).
  destruct (implicit_reactor_total true ex_inp_bwd ex_rc eq_refl eq_refl H5 H6 H7 H8) as (A & B & _). split; [exact A|exact (B _)].
Qed.
