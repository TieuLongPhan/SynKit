(** C01 — renumbering commutes with the hydrogen bookkeeping of its_to_rsmi (pointwise / extensional form) *)
From Coq Require Import List NArith ZArith Bool Lia Arith.
From SK Require Import lib.LGraph lib.C01_GraphLemmas model.C01_Model model.C02_Model model.C01_String model.C01_Renum
  proof.C01_Proof proof.C02_Proof proof.C01_StringHyd proof.C01_StringHydExt proof.C01_StringRenum proof.C01_RenumCentre proof.C01_StringPipe.
Import ListNotations.
Local Open Scope Z_scope.

Lemma filter_map_length {X Y} (p : Y -> bool) (h : X -> Y) (l : list X) :
  length (filter p (map h l)) = length (filter (fun x => p (h x)) l).
Proof. induction l as [|a l IH]; [reflexivity|]. cbn [map filter]. destruct (p (h a)); cbn [length]; rewrite IH; reflexivity. Qed.

Lemma NoDup_map_inj (f : N -> N) (Hinj : forall a b, f a = f b -> a = b) (l : list N) : NoDup l -> NoDup (map f l).
Proof.
  induction 1 as [|x l Hx Hn IH]; [constructor|]. cbn [map]. constructor; [|exact IH].
  intros F. apply in_map_iff in F. destruct F as (y & E & Iy). apply Hinj in E. subst y. contradiction.
Qed.

Section IhRenum.
Variable f : N -> N.
Hypothesis Hinj : forall a b, f a = f b -> a = b.
Variable g : mgraph.
Hypothesis W : wf g.
Hypothesis Am : amap_id g.
Variable pres : list Z.
Hypothesis Hpos : forall z, In z pres -> 0 <= z.

Definition Fz (z : Z) : Z := Z.of_N (f (Z.to_N z)).
Definition g' : mgraph := set_amap (relabel f g).
Definition pres' : list Z := map Fz pres.
Definition re (m : N) (a : gnode) : gnode := GN (g_el a) (g_arom a) (g_hc a) (g_ch a) (g_nb a) (Z.of_N m).

Lemma label_g' n : label g' (f n) = option_map (re (f n)) (label g n).
Proof. unfold g'. rewrite (label_set_amap (relabel f g) (f n)), (label_relabel Hinj). reflexivity. Qed.

Lemma label_g'_out m : ~ In m (map f (node_ids g)) -> label g' m = None.
Proof.
  intros Hm. destruct (label g' m) as [a|] eqn:L; [|reflexivity]. exfalso. apply Hm.
  apply label_some_node in L. unfold g', node_ids, set_amap in L. cbn [gnodes] in L. rewrite map_map in L. cbn [fst] in L.
  change (map (fun x : N * gnode => fst x) (gnodes (relabel f g))) with (node_ids (relabel f g)) in L.
  rewrite node_ids_relabel in L. exact L.
Qed.

Lemma adj_g' u v : adj g' (f u) (f v) = adj g u v.
Proof. unfold g'. change (adj (set_amap (relabel f g)) (f u) (f v)) with (adj (relabel f g) (f u) (f v)). apply (adj_relabel Hinj). Qed.

Lemma nbrs_g' u : nbrs g' (f u) = map f (nbrs g u).
Proof. unfold g'. change (nbrs (set_amap (relabel f g)) (f u)) with (nbrs (relabel f g) (f u)). apply (nbrs_relabel Hinj). Qed.

Lemma wf_g' : wf g'.
Proof.
  pose proof (wf_relabel Hinj W) as Wr. unfold g'. apply wf_intro.
  - unfold node_ids, set_amap. cbn [gnodes]. rewrite map_map. cbn [fst]. apply Wr.
  - intros a b x I. change (gedges (set_amap (relabel f g))) with (gedges (relabel f g)) in I.
    destruct (wf_edge_nodes Wr I) as (Ha & Hb & Hab). unfold node_ids, set_amap. cbn [gnodes]. rewrite map_map. cbn [fst]. auto.
  - change (gedges (set_amap (relabel f g))) with (gedges (relabel f g)). apply wf_simple. exact Wr.
Qed.

Lemma is_Hn_g' n : is_Hn g' (f n) = is_Hn g n.
Proof. unfold is_Hn. rewrite label_g'. destruct (label g n); reflexivity. Qed.

Lemma count_h_g' n : count_h g' (f n) = count_h g n.
Proof.
  unfold count_h. f_equal. rewrite nbrs_g', filter_map_length. apply f_equal.
  apply filter_ext. intros m. apply is_Hn_g'.
Qed.

Lemma memZ_spec z l : memZ z l = true <-> In z l.
Proof.
  unfold memZ. rewrite existsb_exists. split.
  - intros (y & Iy & E). apply Z.eqb_eq in E. subst. exact Iy.
  - intros I. exists z. split; [exact I|apply Z.eqb_refl].
Qed.

Lemma memZ_pres' h : memZ (Z.of_N (f h)) pres' = memZ (Z.of_N h) pres.
Proof.
  apply eq_true_iff_eq. rewrite !memZ_spec. unfold pres'. rewrite in_map_iff. split.
  - intros (z & Ez & Iz). unfold Fz in Ez. apply N2Z.inj, Hinj in Ez. rewrite <- Ez, Z2N.id; [exact Iz|exact (Hpos z Iz)].
  - intros I. exists (Z.of_N h). split; [unfold Fz; rewrite N2Z.id; reflexivity|exact I].
Qed.

Lemma preserved_g' h' : In h' (preserved g' pres') <-> exists h, h' = f h /\ In h (preserved g pres).
Proof.
  rewrite (preserved_spec g' pres' h' wf_g'). split.
  - intros (a' & L & Ha & Hm).
    assert (In h' (map f (node_ids g))) as Ih.
    { destruct (in_dec N.eq_dec h' (map f (node_ids g))) as [I|I]; [exact I|]. rewrite (label_g'_out h' I) in L. discriminate. }
    apply in_map_iff in Ih. destruct Ih as (h & <- & _). exists h. split; [reflexivity|].
    rewrite label_g' in L. destruct (label g h) as [a|] eqn:La; [|discriminate]. cbn [option_map] in L. inversion L; subst a'.
    apply (preserved_spec g pres h W). exists a. split; [exact La|]. split; [exact Ha|].
    cbn [re g_amap] in Hm. rewrite memZ_pres' in Hm. rewrite (Am h a La). exact Hm.
  - intros (h & -> & Ih). apply (preserved_spec g pres h W) in Ih. destruct Ih as (a & La & Ha & Hm).
    exists (re (f h) a). split; [rewrite label_g', La; reflexivity|]. split; [exact Ha|].
    cbn [re g_amap]. rewrite memZ_pres'. rewrite (Am h a La) in Hm. exact Hm.
Qed.

Lemma mem_preserved_g' n : mem (f n) (preserved g' pres') = mem n (preserved g pres).
Proof.
  apply eq_true_iff_eq. rewrite !mem_spec, preserved_g'. split.
  - intros (h & E & Ih). apply Hinj in E. subst h. exact Ih.
  - intros I. exists n. auto.
Qed.

Lemma count_pres_g' n : count_pres g' pres' (f n) = count_pres g pres n.
Proof.
  unfold count_pres. f_equal.
  rewrite (filter_length_same_members (fun h' => mem (f n) (nbrs g' h')) (preserved g' pres') (map f (preserved g pres))).
  - rewrite filter_map_length. apply f_equal. apply filter_ext. intros h. rewrite nbrs_g'. apply (mem_map_inj Hinj).
  - apply preserved_nodup. exact wf_g'.
  - apply NoDup_map_inj; [exact Hinj|apply preserved_nodup; exact W].
  - intros x. rewrite preserved_g', in_map_iff. split; intros (h & A & B); exists h; auto.
Qed.

Lemma has_heavy_g' n : has_heavy g' (f n) = has_heavy g n.
Proof.
  unfold has_heavy. rewrite nbrs_g'. induction (nbrs g n) as [|m l IH]; [reflexivity|].
  cbn [map existsb]. rewrite is_Hn_g', IH. reflexivity.
Qed.

Lemma ih_removed_g' n : ih_removed g' pres' (f n) = ih_removed g pres n.
Proof. unfold ih_removed. rewrite is_Hn_g', mem_preserved_g', has_heavy_g'. reflexivity. Qed.

(** the folding of the renumbered graph is the renumbered folding (used by C01_its_to_graphs_renumber) *)
Theorem implicit_hydrogen_renumber :
  (forall n, label (implicit_hydrogen g' pres') (f n) = option_map (re (f n)) (label (implicit_hydrogen g pres) n)) /\
  (forall m, ~ In m (map f (node_ids g)) -> label (implicit_hydrogen g' pres') m = None) /\
  (forall u v, adj (implicit_hydrogen g' pres') (f u) (f v) = adj (implicit_hydrogen g pres) u v).
Proof.
  destruct (implicit_hydrogen_spec g' pres' wf_g') as (L1 & A1 & _).
  destruct (implicit_hydrogen_spec g pres W) as (L2 & A2 & _).
  split; [|split].
  - intros n. rewrite L1, L2, label_g'. destruct (label g n) as [a|]; [|reflexivity]. cbn [option_map].
    change (is_H (re (f n) a)) with (is_H a). destruct (is_H a).
    + rewrite mem_preserved_g', has_heavy_g'. destruct (mem n (preserved g pres) || negb (has_heavy g n)); reflexivity.
    + rewrite count_h_g', count_pres_g'. reflexivity.
  - intros m Hm. rewrite L1, (label_g'_out m Hm). reflexivity.
  - intros u v. rewrite A1, A2, !ih_removed_g', adj_g'. reflexivity.
Qed.
End IhRenum.

(** * its_to_graphs of the renumbered ITS *)
Lemma hlist_map_aux (f : N -> N) (l : list (N * inode)) :
  (forall n b, In (n, b) l -> i_amap b = Z.of_N n) ->
  map (fun p : N * inode => i_amap (snd p))
      (filter (fun p : N * inode => N.eqb (i_el (snd p)) EL_H) (map (fun p : N * inode => T (f (fst p), snd p)) l)) =
  map (Fz f) (map (fun p : N * inode => i_amap (snd p)) (filter (fun p : N * inode => N.eqb (i_el (snd p)) EL_H) l)).
Proof.
  induction l as [|[n b] l IH]; intros H; [reflexivity|].
  assert (i_amap b = Z.of_N n) as Eb by (apply H; left; reflexivity).
  assert (forall n0 b0, In (n0, b0) l -> i_amap b0 = Z.of_N n0) as H' by (intros n0 b0 I0; apply H; right; exact I0).
  cbn [map filter fst snd T with_iamap i_el]. destruct (N.eqb (i_el b) EL_H); cbn [map snd i_amap]; rewrite (IH H'); [|reflexivity].
  f_equal. unfold Fz. rewrite Eb, N2Z.id. reflexivity.
Qed.

Section WriteRenum.
Variable f : N -> N.
Hypothesis Hinj : forall a b, f a = f b -> a = b.
Variable J : its.
Hypothesis WJ : wf J.
Hypothesis AJ : forall n a, label J n = Some a -> i_amap a = Z.of_N n.

Definition J' : its := set_iamap (relabel f J).

Lemma decompose_set_iamap (K : its) : its_decompose (set_iamap K) = its_decompose K.
Proof. unfold its_decompose, dec_side, set_iamap. cbn [gnodes gedges]. rewrite !map_map. reflexivity. Qed.

Lemma decompose_J' :
  its_decompose J' = (set_amap (relabel f (fst (its_decompose J))), set_amap (relabel f (snd (its_decompose J)))).
Proof. unfold J'. rewrite decompose_set_iamap. apply (decompose_equivariant f). Qed.

Lemma hlist_J' : hlist J' = map (Fz f) (hlist J).
Proof.
  unfold hlist, J'. rewrite get_rc_set_iamap, (rc_equivariant f Hinj), set_iamap_nodes.
  unfold relabel. cbn [gnodes]. rewrite map_map. apply hlist_map_aux.
  intros n b I. destruct (proj2 (rc_NInv J) n b I) as (a & L & ->). cbn [rc_attr i_amap]. apply (AJ n a L).
Qed.

Lemma hlist_nonneg z : In z (hlist J) -> 0 <= z.
Proof.
  unfold hlist. intros I. apply in_map_iff in I. destruct I as ([n b] & <- & Ib). apply filter_In in Ib. destruct Ib as [Ib _].
  destruct (proj2 (rc_NInv J) n b Ib) as (a & L & ->). cbn [snd rc_attr i_amap]. rewrite (AJ n a L). lia.
Qed.

(** C01_its_to_graphs_renumber: what its_to_rsmi hands to GraphToMol for the renumbered ITS is, atom by atom and bond by
    bond, what it hands over for the original ITS, renumbered *)
Theorem its_to_graphs_renumber :
  let A := its_to_graphs J in let B := its_to_graphs J' in
  (forall n, label (fst B) (f n) = option_map (re (f n)) (label (fst A) n)) /\
  (forall u v, adj (fst B) (f u) (f v) = adj (fst A) u v) /\
  (forall n, label (snd B) (f n) = option_map (re (f n)) (label (snd A) n)) /\
  (forall u v, adj (snd B) (f u) (f v) = adj (snd A) u v).
Proof.
  cbv zeta. unfold its_to_graphs. rewrite decompose_J', hlist_J'. cbn [fst snd].
  assert (wf (fst (its_decompose J)) /\ wf (snd (its_decompose J))) as [Wg Wh] by (split; apply dec_wf; exact WJ).
  assert (amap_id (fst (its_decompose J)) /\ amap_id (snd (its_decompose J))) as [Ag Ah] by (split; apply dec_amap_id).
  unfold smi_graph. destruct (hlist J) as [|z0 zs] eqn:EH; cbn [map].
  - repeat split; intros; first [apply (label_g' f Hinj)|apply (adj_g' f Hinj)].
  - assert (forall z, In z (z0 :: zs) -> 0 <= z) as Hpos by (intros z Iz; apply hlist_nonneg; rewrite EH; exact Iz).
    destruct (implicit_hydrogen_renumber f Hinj _ Wg Ag (z0 :: zs) Hpos) as (L1 & _ & A1).
    destruct (implicit_hydrogen_renumber f Hinj _ Wh Ah (z0 :: zs) Hpos) as (L2 & _ & A2).
    repeat split; assumption.
Qed.
End WriteRenum.

(** non-vacuity: hydrogenation of ethene with explicit mapped H2, maps shifted by 10 *)
Definition ex_hr : rmol :=
  RM [RA 70%N false 2 0 1%N [70%N]; RA 70%N false 2 0 2%N [70%N]; RA EL_H false 0 0 3%N [EL_H]; RA EL_H false 0 0 4%N [EL_H]]
     [(0%nat, 1%nat, 4); (2%nat, 3%nat, 2)].
Definition ex_hp : rmol :=
  RM [RA 70%N false 2 0 1%N [70%N; EL_H]; RA EL_H false 0 0 3%N [70%N]; RA 70%N false 2 0 2%N [70%N; EL_H]; RA EL_H false 0 0 4%N [70%N]]
     [(0%nat, 1%nat, 2); (0%nat, 2%nat, 2); (2%nat, 3%nat, 2)].
Definition ex_hJ : its := its_construct (graph_of ex_hr) (graph_of ex_hp).
Example C01_its_to_graphs_renumber_nonvacuous :
  hlist ex_hJ <> [] /\ (forall n a, label ex_hJ n = Some a -> i_amap a = Z.of_N n) /\
  hlist (set_iamap (relabel (N.add 10) ex_hJ)) = map (Fz (N.add 10)) (hlist ex_hJ) /\
  option_map g_hc (label (snd (its_to_graphs (set_iamap (relabel (N.add 10) ex_hJ)))) 11%N) = Some 2 /\
  adj (snd (its_to_graphs (set_iamap (relabel (N.add 10) ex_hJ)))) 11%N 13%N = Some 2.
Proof.
  split; [vm_compute; discriminate|]. split; [|repeat apply conj; vm_compute; reflexivity].
  intros n a L. apply assoc_in in L. vm_compute in L.
  repeat (destruct L as [E|L]; [inversion E; reflexivity|]). destruct L.
Qed.
