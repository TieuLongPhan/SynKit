(** C18 — summary()["mappings"] (_maps_from_perms): one mapping per minimal leaf, and every reported mapping is the graph,
    on the nodes of the view, of a structure-preserving self-map. *)
From Coq Require Import List NArith ZArith Bool Arith Lia Permutation.
From SK Require Import lib.IRCore lib.IRSearch model.C18_Model proof.C18_Order proof.C18_Spec proof.C18_Graph proof.C18_Canon
  proof.C18_Label proof.C18_Aut proof.C18_Invariant proof.C18_Count.
Import ListNotations.

Lemma dict_set_upsert k v : upsert _ _ fst k (dict_set k v).
Proof. split; [reflexivity|]. intros [k' v'] r. simpl. destruct (N.eqb_spec k' k) as [->|Hne]; auto. Qed.
Lemma dict_set_keys k v m a : In a (map fst (dict_set k v m)) <-> a = k \/ In a (map fst m).
Proof. exact (upsert_keys_in _ _ _ _ _ (dict_set_upsert _ _) m a). Qed.
Lemma dict_set_nodup k v m : NoDup (map fst m) -> NoDup (map fst (dict_set k v m)).
Proof. exact (upsert_keys_nodup _ _ _ _ _ (dict_set_upsert _ _) m). Qed.
Lemma dict_set_in k v m a b : NoDup (map fst m) ->
  (In (a, b) (dict_set k v m) <-> (a = k /\ b = v) \/ (a <> k /\ In (a, b) m)).
Proof.
  induction m as [|[k' v'] m IH]; simpl; intros H.
  - split; [intros [E|[]]; inversion E; auto|intros [[-> ->]|[_ []]]; auto].
  - inversion H; subst. destruct (N.eqb_spec k' k) as [->|Hne]; simpl.
    + split.
      * intros [E|I]; [inversion E; auto|]. right. split; auto. intros ->. apply H2. apply in_map_iff. exists (k, b). auto.
      * intros [[-> ->]|[Hn [E|I]]]; auto. inversion E; subst. congruence.
    + rewrite (IH H3). split.
      * intros [E|[[-> ->]|[Hn I]]]; auto. inversion E; subst. auto.
      * intros [[-> ->]|[Hn [E|I]]]; auto.
Qed.

Lemma map_of_graph (s : N -> N) ref : forall acc, NoDup (map fst acc) -> (forall a b, In (a, b) acc -> b = s a) ->
  let m := fold_left (fun m kv => dict_set (fst kv) (snd kv) m) (combine ref (map s ref)) acc in
  NoDup (map fst m) /\ forall a b, In (a, b) m <-> (b = s a /\ (In a ref \/ In a (map fst acc))).
Proof.
  induction ref as [|x ref IH]; intros acc Hnd Hf; simpl.
  - split; auto. intros a b. split.
    + intros I. split; [apply Hf; auto|right; apply in_map_iff; exists (a, b); auto].
    + intros [-> [[]|I]]. apply in_map_iff in I. destruct I as ([a' b'] & E & I). simpl in E. subst a'.
      rewrite (Hf _ _ I) in I. exact I.
  - destruct (IH (dict_set x (s x) acc)) as [H1 H2].
    + apply dict_set_nodup; auto.
    + intros a b I. apply dict_set_in in I; auto. destruct I as [[-> ->]|[_ I]]; auto.
    + split; auto. intros a b. rewrite H2, dict_set_keys.
      split; [intros [E [H|[H|H]]]|intros [E [[H|H]|H]]]; auto.
Qed.

Theorem mappings_spec g lab p : wf g -> kinds_ok g -> arcs_ok g -> fst (canon_search g) = Some (lab, p) ->
  length (maps_from_perms p (min_leaves g)) = length (min_leaves g) /\
  forall m, In m (maps_from_perms p (min_leaves g)) ->
    exists s, is_aut g s /\ forall a b, In (a, b) m <-> (In a (node_ids g) /\ b = s a).
Proof.
  intros Hw Hk Ha Hb. destruct (aut_count g lab p Hw Hk Ha Hb) as (_ & Miff & _).
  assert (Hall : forall q, In q (min_leaves g) -> Nat.eqb (length q) (length p) = true).
  { intros q Hq. apply Miff in Hq. destruct Hq as (s & _ & ->). rewrite map_length. apply Nat.eqb_refl. }
  unfold maps_from_perms. split.
  - rewrite map_length. f_equal. clear - Hall. induction (min_leaves g) as [|q l IH]; simpl; auto.
    rewrite Hall by (left; auto). f_equal. apply IH. intros; apply Hall; right; auto.
  - intros m Hm. apply in_map_iff in Hm. destruct Hm as (q & <- & Hq). apply filter_In in Hq. destruct Hq as [Hq _].
    apply Miff in Hq. destruct Hq as (s & Hs & ->). exists s. split; auto.
    intros a b. unfold map_of. destruct (map_of_graph s p [] (NoDup_nil _) (fun a b (I : In (a, b) []) => match I with end)) as [_ H].
    rewrite H. simpl. rewrite <- (best_perm_nodes g lab p Hw Hb). split; [intros [E [I|[]]]|intros [I E]]; auto.
Qed.

Theorem has_nontrivial_spec g lab p : wf g -> kinds_ok g -> arcs_ok g -> fst (canon_search g) = Some (lab, p) ->
  (1 < length (min_leaves g) <-> exists s v, is_aut g s /\ In v (node_ids g) /\ s v <> v).
Proof.
  intros Hw Hk Ha Hb. destruct (aut_count g lab p Hw Hk Ha Hb) as (Mnd & Miff & _).
  pose proof (best_perm_nodes g lab p Hw Hb) as Ip.
  assert (Hp : In p (min_leaves g)).
  { apply Miff. exists (fun v => v). split; [|symmetry; apply map_id].
    split; [intros x y _ _ E; exact E|]. split; [auto|]. split; auto. }
  assert (Diff : forall s, map s p <> p -> exists v, In v p /\ s v <> v).
  { intros s. clear. induction p as [|x l IH]; simpl; intros H; [congruence|].
    destruct (N.eq_dec (s x) x) as [E|E]; [|exists x; auto].
    assert (Hl : map s l <> l) by (intro E'; apply H; congruence).
    destruct (IH Hl) as (v & Hv & Hn). exists v. auto. }
  split.
  - intros Hlen.
    assert (Hq : exists q, In q (min_leaves g) /\ q <> p).
    { destruct (min_leaves g) as [|a [|b l]]; simpl in Hlen; try lia.
      destruct (list_eq_dec N.eq_dec a p) as [->|Hne]; [|exists a; simpl; auto].
      exists b. split; [simpl; auto|]. intros ->. inversion Mnd as [|? ? Hni _]. apply Hni. left. auto. }
    destruct Hq as (q & Hq & Hne). apply Miff in Hq. destruct Hq as (s & Hs & ->).
    destruct (Diff s Hne) as (v & Hv & Hn). exists s, v. split; auto. split; auto. apply Ip. auto.
  - intros (s & v & Hs & Hv & Hn).
    assert (Hq : In (map s p) (min_leaves g)) by (apply Miff; eauto).
    assert (Hne : map s p <> p).
    { intros E. apply Hn. apply Ip in Hv. clear - E Hv. induction p as [|x l IH]; simpl in *; [contradiction|].
      inversion E. destruct Hv as [<-|Hv]; auto. }
    destruct (min_leaves g) as [|a [|b l]]; simpl in *; try lia; try contradiction.
    destruct Hp as [<-|[]], Hq as [E|[]]. congruence.
Qed.
