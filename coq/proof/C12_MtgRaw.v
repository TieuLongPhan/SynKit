(** C12 -- the MTG copy: the property over histories stated on the graphs THE CALLER PASSES (raw attribute dictionaries). *)
From Coq Require Import List NArith ZArith Bool Arith Permutation.
From SK Require Import lib.LGraph model.C12_Model model.C12_State
     proof.C12_Search proof.C12_Proof proof.C12_State.
Import ListNotations.
Local Open Scope nat_scope.

(** the validity clause of the MTG copy on raw graphs: configured labels equal after the defaults, and every bond between
    mapped atoms present on both sides with matching values of THE edge attribute (float() equality, == for values float()
    rejects, missing only against missing; /repo 24a0150), or absent on both sides *)
Definition raw_common_induced_mtg (cfg : config) (k : N) (ga gb : rgraph) (m : mapping) : Prop :=
  NoDup (map fst m) /\ NoDup (map snd m) /\
  (forall p h, In (p, h) m ->
     exists a b, label ga p = Some a /\ label gb h = Some b /\ node_match_raw (c_names cfg) (c_defs cfg) b a = true) /\
  (forall p h p' h', In (p, h) m -> In (p', h') m -> p <> p' ->
     match LGraph.adj ga p p', LGraph.adj gb h h' with
     | Some b, Some b' => edge_match_mtg_raw k b' b = true
     | None, None => True
     | _, _ => False
     end).

Theorem project_mtg_ci_iff cfg k ga gb m : length (c_defs cfg) = length (c_names cfg) -> c_enames cfg = [k] ->
  common_induced (node_match (c_defs cfg)) edge_match_mtg (project_mtg cfg ga) (project_mtg cfg gb) m <->
  raw_common_induced_mtg cfg k ga gb m.
Proof.
  intros EL EK. rewrite !project_mtg_eq. apply (project_ci cfg edge_match_mtg (edge_match_mtg_raw k) ga gb m EL).
  intros h p. rewrite <- !project_edge_mtg_eq. exact (edge_match_mtg_project cfg k h p EK).
Qed.

(** the MTG object after any history, on the caller's graphs (object built by its constructor) *)
Theorem mtg_history_valid_raw a st ops g1 g2 mcs rds :
  NoDup (node_ids g1) -> NoDup (node_ids g2) -> forallb t_is_read rds = true ->
  let cfg := mk_config_mtg a in
  let stf := t_run cfg st (ops ++ TFind g1 g2 mcs :: rds) in
  (forall m, In m (t_maps stf) -> raw_common_induced_mtg cfg (ma_edge a) g1 g2 m /\ 1 <= length m) /\
  (mcs = true -> (forall m, In m (t_maps stf) -> length m = t_last stf) /\
                 (forall m, raw_common_induced_mtg cfg (ma_edge a) g1 g2 m -> length m <= t_last stf)) /\
  (mcs = false -> forall m, raw_common_induced_mtg cfg (ma_edge a) g1 g2 m -> 1 <= length m ->
                  exists m', In m' (t_maps stf) /\ Permutation m m').
Proof.
  intros N1 N2 Hr cfg stf.
  assert (EL : length (c_defs cfg) = length (c_names cfg)) by apply mk_config_mtg_lengths.
  assert (EK : c_enames cfg = [ma_edge a]) by reflexivity.
  destruct (mtg_history_valid cfg st ops g1 g2 mcs rds N1 N2 Hr) as (V & Hmax & Hall). fold stf in V, Hmax, Hall.
  split; [|split].
  - intros m Hm. destruct (V m Hm) as (C & L). split; [now apply (project_mtg_ci_iff cfg _ g1 g2 m EL EK)|exact L].
  - intros Em. destruct (Hmax Em) as (M1 & M2 & _). split; [exact M1|].
    intros m Hv. apply M2. now apply (project_mtg_ci_iff cfg _ g1 g2 m EL EK).
  - intros Em m Hv L. apply (Hall Em m); [now apply (project_mtg_ci_iff cfg _ g1 g2 m EL EK)|exact L].
Qed.
