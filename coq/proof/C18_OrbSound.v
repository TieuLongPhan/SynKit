(** C18 — the slot-based union-find of CRNCanonicalizer._orbits_from_perms never joins nodes that are not exchangeable and
    loses no node (sound half of clause 4 "orbits" for the canonicaliser; the complete half is proof/C18_OrbComplete.v). *)
From Coq Require Import List NArith ZArith Bool Arith Lia Permutation.
From SK Require Import lib.IRCore lib.IRSearch model.C18_Model proof.C18_Spec proof.C18_Graph.
Import ListNotations.

Lemma set_nth_length {A} i (x : A) l : length (set_nth i x l) = length l.
Proof. revert i. induction l as [|y l IH]; intros [|i]; simpl; auto. Qed.
Lemma nth_set_nth {A} k i (x d : A) l : nth k (set_nth i x l) d = if Nat.eqb k i && Nat.ltb i (length l) then x else nth k l d.
Proof.
  revert k i. induction l as [|y l IH]; intros k i; simpl.
  - destruct k, i; simpl; rewrite ?andb_false_r; auto.
  - destruct i as [|i], k as [|k]; simpl; auto. rewrite IH. reflexivity.
Qed.
Lemma nth_merged {A} (l : list (list A)) a b u k : a < length l -> b < length l ->
  nth k (set_nth b [] (set_nth a u l)) [] = if Nat.eqb k b then [] else if Nat.eqb k a then u else nth k l [].
Proof.
  intros Ha Hb. rewrite nth_set_nth, set_nth_length, nth_set_nth.
  destruct (Nat.eqb_spec k b) as [->|Hkb]; simpl.
  - destruct (Nat.ltb_spec b (length l)); [reflexivity|lia].
  - destruct (Nat.eqb_spec k a) as [->|Hka]; simpl; auto. destruct (Nat.ltb_spec a (length l)); [reflexivity|lia].
Qed.
Lemma union_set_in a b x : In x (union_set a b) <-> In x a \/ In x b.
Proof.
  unfold union_set. rewrite in_app_iff, filter_In. split; [tauto|].
  intros [H|H]; auto. destruct (memN x a) eqn:E; [left; apply memN_spec; auto|right; split; auto].
Qed.
Lemma omap_get_push o2 i : forall m v, omap_get (fold_left (fun m v => (v, i) :: m) o2 m) v = if memN v o2 then i else omap_get m v.
Proof.
  induction o2 as [|x o2 IH]; intros m v; simpl; auto. rewrite IH. simpl.
  unfold memN. simpl. destruct (existsb (N.eqb v) o2) eqn:E; [rewrite orb_true_r; auto|].
  rewrite orb_false_r. rewrite (N.eqb_sym v x). destruct (N.eqb x v); auto.
Qed.

Section Sound.
Variable first : list N.
Variable R : N -> N -> Prop.
Hypothesis R_sym : forall x y, R x y -> R y x.
Hypothesis R_trans : forall x y z, R x y -> R y z -> R x z.

Definition len := length first.
Definition Inv (s : ostate) : Prop :=
  length (snd s) = len /\
  (forall i, i < len -> nth i (snd s) [] = [] \/ In (nth i first 0%N) (nth i (snd s) [])) /\
  (forall v, In v first -> omap_get (fst s) v < len /\ In v (nth (omap_get (fst s) v) (snd s) [])) /\
  (forall i x y, In x (nth i (snd s) []) -> In y (nth i (snd s) []) -> R x y) /\
  (forall i x, In x (nth i (snd s) []) -> In x first).

Lemma omerge_inv s i v : Inv s -> i < len -> In v first -> R (nth i first 0%N) v -> (forall x, In x first -> R x x) ->
  Inv (omerge s i (omap_get (fst s) v)).
Proof.
  intros (Hl & Hb & Hc & Hd & He) Hi Hv HR Hrefl. destruct (Hc v Hv) as [Hj Hvj].
  set (j := omap_get (fst s) v) in *. unfold omerge.
  destruct (Nat.eqb_spec i j) as [Eij|Hne]; [exact (conj Hl (conj Hb (conj Hc (conj Hd He))))|].
  set (o1 := nth i (snd s) []). set (o2 := nth j (snd s) []).
  assert (Cross : forall x y, In x o1 -> In y o2 -> R x y).
  { intros x y Hx Hy. destruct (Hb i Hi) as [E0|Hf]; [unfold o1 in Hx; rewrite E0 in Hx; contradiction|].
    apply (R_trans x (nth i first 0%N)); [apply (Hd i); auto|]. apply (R_trans _ v); auto. apply (Hd j); auto. }
  (* after the possible swap: receiver a, absorbed b *)
  assert (G : forall a b oa ob, a <> b -> a < len -> b < len -> oa = nth a (snd s) [] -> ob = nth b (snd s) [] ->
            length ob <= length oa -> (forall x y, In x oa -> In y ob -> R x y) ->
            Inv (fold_left (fun m v0 => (v0, a) :: m) ob (fst s), set_nth b [] (set_nth a (union_set oa ob) (snd s)))).
  { intros a b oa ob Hab Ha Hb' Eoa Eob Hsz Hx.
    assert (Nth : forall k, nth k (set_nth b [] (set_nth a (union_set oa ob) (snd s))) []
                  = if Nat.eqb k b then [] else if Nat.eqb k a then union_set oa ob else nth k (snd s) [])
      by (intros k; apply nth_merged; rewrite Hl; assumption).
    split; [simpl; rewrite !set_nth_length; auto|]. split; [|split; [|split]]; simpl.
    - intros k Hk. rewrite Nth. destruct (Nat.eqb_spec k b); auto. destruct (Nat.eqb_spec k a) as [->|Hka]; auto.
      destruct (Hb a Ha) as [E|Hf].
      + left. assert (E1 : oa = []) by (rewrite Eoa; exact E). rewrite E1 in *. destruct ob as [|z ob']; [reflexivity|simpl in Hsz; lia].
      + right. apply union_set_in. left. rewrite Eoa. auto.
    - intros w Hw. rewrite omap_get_push. destruct (Hc w Hw) as [Hwl Hwin]. destruct (memN w ob) eqn:Ew.
      + split; auto. rewrite Nth. destruct (Nat.eqb_spec a b); [congruence|]. rewrite Nat.eqb_refl.
        apply union_set_in. right. apply memN_spec. auto.
      + split; auto. rewrite Nth. destruct (Nat.eqb_spec (omap_get (fst s) w) b) as [Eb|Hnb].
        * exfalso. rewrite Eb, <- Eob in Hwin. apply memN_spec in Hwin. congruence.
        * destruct (Nat.eqb_spec (omap_get (fst s) w) a) as [Ea|Hna]; auto.
          apply union_set_in. left. rewrite Eoa, <- Ea. auto.
    - intros k x y. rewrite Nth. destruct (Nat.eqb_spec k b); [intros []|]. destruct (Nat.eqb_spec k a) as [->|Hka]; [|apply Hd].
      rewrite !union_set_in. intros [H1|H1] [H2|H2].
      + apply (Hd a); rewrite <- Eoa; auto.
      + apply Hx; auto.
      + apply R_sym. apply Hx; auto.
      + apply (Hd b); rewrite <- Eob; auto.
    - intros k x. rewrite Nth. destruct (Nat.eqb_spec k b); [intros []|]. destruct (Nat.eqb_spec k a) as [->|Hka]; [|apply He].
      rewrite union_set_in. intros [H1|H1]; [apply (He a); rewrite <- Eoa; auto|apply (He b); rewrite <- Eob; auto]. }
  destruct (Nat.ltb_spec (length o1) (length o2)).
  - apply (G j i o2 o1); auto; try lia; intros x y Hx Hy; apply R_sym; apply Cross; auto.
  - apply (G i j o1 o2); auto.
Qed.
End Sound.

(* ---------------- the initial state ---------------- *)
Definition push (m : list (N * nat)) (iv : nat * N) : list (N * nat) := (snd iv, fst iv) :: m.

Lemma omap_push_notin l : forall a m v, ~ In v l -> omap_get (fold_left push (combine (seq a (length l)) l) m) v = omap_get m v.
Proof.
  induction l as [|x l IH]; intros a m v Hn; simpl; auto.
  rewrite IH by (intro I; apply Hn; right; auto). simpl.
  destruct (N.eqb_spec x v) as [->|Hne]; auto. exfalso. apply Hn. left. auto.
Qed.
Lemma omap_push_in l : forall a m v, In v l ->
  a <= omap_get (fold_left push (combine (seq a (length l)) l) m) v < a + length l /\
  nth (omap_get (fold_left push (combine (seq a (length l)) l) m) v - a) l 0%N = v.
Proof.
  induction l as [|x l IH]; intros a m v Hv; simpl in *; [contradiction|].
  destruct (in_dec N.eq_dec v l) as [I|I].
  - destruct (IH (S a) (push m (a, x)) v I) as [H1 H2]. split; [lia|].
    set (r := omap_get (fold_left push (combine (seq (S a) (length l)) l) (push m (a, x))) v) in *.
    replace (r - a) with (S (r - S a)) by lia. exact H2.
  - destruct Hv as [->|Hv]; [|contradiction]. rewrite omap_push_notin by auto. simpl. rewrite N.eqb_refl.
    split; [lia|]. rewrite Nat.sub_diag. reflexivity.
Qed.

Lemma nth_map_single (l : list N) i : i < length l -> nth i (map (fun v => [v]) l) [] = [nth i l 0%N].
Proof. revert i. induction l as [|x l IH]; intros [|i] H; simpl in *; try lia; auto. apply IH. lia. Qed.

Lemma Inv_init first (R : N -> N -> Prop) : (forall x, In x first -> R x x) -> Inv first R (oinit first).
Proof.
  intros Hrefl. unfold Inv, oinit, len. simpl. split; [apply map_length|]. split; [|split; [|split]].
  - intros i Hi. right. rewrite nth_map_single by auto. left. auto.
  - intros v Hv. unfold indexed. change (fun (m : list (N * nat)) (iv : nat * N) => (snd iv, fst iv) :: m) with push.
    destruct (omap_push_in first 0 [] v Hv) as [H1 H2]. rewrite Nat.sub_0_r in H2. split; [lia|].
    rewrite nth_map_single by lia. left. auto.
  - intros i x y Hx Hy. destruct (Nat.lt_ge_cases i (length first)) as [Hi|Hi].
    + rewrite nth_map_single in Hx, Hy by auto. destruct Hx as [<-|[]], Hy as [<-|[]]. apply Hrefl. apply nth_In. auto.
    + rewrite nth_overflow in Hx by (rewrite map_length; auto). contradiction.
  - intros i x Hx. destruct (Nat.lt_ge_cases i (length first)) as [Hi|Hi].
    + rewrite nth_map_single in Hx by auto. destruct Hx as [<-|[]]. apply nth_In. auto.
    + rewrite nth_overflow in Hx by (rewrite map_length; auto). contradiction.
Qed.

Lemma in_combine_seq {A} (l : list A) d : forall a i v, In (i, v) (combine (seq a (length l)) l) -> a <= i < a + length l /\ nth (i - a) l d = v.
Proof.
  induction l as [|x l IH]; intros a i v H; simpl in *; [contradiction|].
  destruct H as [E|H].
  - inversion E; subst. split; [lia|]. rewrite Nat.sub_diag. reflexivity.
  - destruct (IH (S a) i v H) as [H1 H2]. split; [lia|]. replace (i - a) with (S (i - S a)) by lia. exact H2.
Qed.

Lemma leaf_pairs_ok first rest (R : N -> N -> Prop) :
  (forall q, In q rest -> length q = length first /\
     forall i, i < length first -> In (nth i q 0%N) first /\ R (nth i first 0%N) (nth i q 0%N)) ->
  forall iv, In iv (flat_map indexed rest) -> fst iv < length first /\ In (snd iv) first /\ R (nth (fst iv) first 0%N) (snd iv).
Proof.
  intros HQ [i v] Hin. apply in_flat_map in Hin. destruct Hin as (q & Hq & Hin). unfold indexed in Hin.
  destruct (in_combine_seq q 0%N 0 i v Hin) as [Hi Hn]. rewrite Nat.sub_0_r in Hn.
  destruct (HQ q Hq) as [Hlq Hqq]. simpl. assert (Hi' : i < length first) by lia.
  destruct (Hqq i Hi') as [H1 H2]. rewrite Hn in *. auto.
Qed.

Lemma fold_omerge_inv first (R : N -> N -> Prop) :
  (forall x y, R x y -> R y x) -> (forall x y z, R x y -> R y z -> R x z) -> (forall x, In x first -> R x x) ->
  forall L s, (forall iv, In iv L -> fst iv < length first /\ In (snd iv) first /\ R (nth (fst iv) first 0%N) (snd iv)) ->
  Inv first R s -> Inv first R (fold_left (fun s iv => omerge s (fst iv) (omap_get (fst s) (snd iv))) L s).
Proof.
  intros Rs Rt Rr. induction L as [|[i v] L IH]; intros s HL Hs; simpl; [exact Hs|].
  destruct (HL (i, v) (or_introl eq_refl)) as (Hi & Hv & HR). apply IH; [intros; apply HL; right; auto|].
  apply omerge_inv; auto.
Qed.

Theorem orbits_from_perms_sound first rest (R : N -> N -> Prop) :
  (forall x y, R x y -> R y x) -> (forall x y z, R x y -> R y z -> R x z) -> (forall x, In x first -> R x x) ->
  (forall q, In q rest -> length q = length first /\
     forall i, i < length first -> In (nth i q 0%N) first /\ R (nth i first 0%N) (nth i q 0%N)) ->
  (forall c, In c (orbits_from_perms (first :: rest)) -> forall x y, In x c -> In y c -> R x y) /\
  (forall v, In v first -> exists c, In c (orbits_from_perms (first :: rest)) /\ In v c).
Proof.
  intros Rs Rt Rr HQ. unfold orbits_from_perms. rewrite <- fold_left_flat_map.
  destruct (fold_omerge_inv first R Rs Rt Rr _ _ (leaf_pairs_ok first rest R HQ) (Inv_init first R Rr))
    as (Hl & Hb & Hc & Hd & He). split.
  - intros c Hc' x y Hx Hy. apply filter_In in Hc'. destruct Hc' as [Hc' _].
    destruct (In_nth _ _ [] Hc') as (i & _ & <-). apply (Hd i); auto.
  - intros v Hv. destruct (Hc v Hv) as [Hj Hin]. eexists. split; [|exact Hin].
    apply filter_In. split.
    + apply nth_In. unfold len in *. lia.
    + destruct (nth _ _ _); [contradiction|reflexivity].
Qed.
