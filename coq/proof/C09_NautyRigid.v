(** C09 — back-end nauty: on a graph without non-trivial automorphism (on the attributes the canonicaliser reads) the
    canonical order of a renamed copy is the renamed canonical order.  Built on the C08 facts about the search:
    the best leaf of the renamed graph is the image of a leaf with the same label, and two leaves with the same label
    correspond position-wise by an automorphism ([zrel]). *)
From Coq Require Import List NArith ZArith Bool Arith Lia Permutation.
From SK Require Import lib.LGraph model.C08_Model proof.C08_Spec proof.C08_Nauty proof.C08_Equiv proof.C08_Invariant.
Import ListNotations.

(** rigid = all atoms distinguishable: the only position-wise correspondence between two enumerations of the atoms that
    keeps element, charge, aromaticity, hydrogen count and the bonds with their orders is the identity *)
Definition rigid (g : graph) : Prop :=
  forall p p', Permutation p (node_ids g) -> Permutation p' (node_ids g) -> zrel g p p' -> p = p'.

Theorem nauty_perm_rigid (pi : N -> N) (pi_inj : forall x y, pi x = pi y -> x = y) (g h : graph) :
  wf g -> wf h -> els_ok g -> geq_cov (relabel pi g) h -> rigid g ->
  nauty_perm h = map pi (nauty_perm g).
Proof.
  intros Hg Hh Eg Hq Hr.
  pose proof (proj1 Hg) as Ng. pose proof (proj1 Hh) as Nh.
  destruct (nauty_perm_leaf g Ng) as [Lp Ep]. destruct (nauty_perm_leaf h Nh) as [Lq Eq].
  pose proof (nauty_label_rel pi pi_inj g h Hg Hq) as El. rewrite Ep, Eq in El. inversion El as [El'].
  pose proof (leaves_rel pi pi_inj g h Hg Hq) as HL.
  apply (Permutation_in _ (Permutation_sym HL)) in Lq. apply in_map_iff in Lq. destruct Lq as (p' & Eq' & Lp').
  assert (Elab : nlabel g (nauty_perm g) = nlabel g p').
  { rewrite <- El', <- Eq'. apply (nlabel_rel pi pi_inj g h Hg Hq). }
  pose proof (leaf_perm g _ Ng Lp) as Pp. pose proof (leaf_perm g p' Ng Lp') as Pp'.
  assert (Hl : length (nauty_perm g) = length p') by (rewrite (Permutation_length Pp), (Permutation_length Pp'); reflexivity).
  rewrite (Hr _ _ Pp Pp' (label_zrel g Eg _ _ Hl Elab)). symmetry. exact Eq'.
Qed.
