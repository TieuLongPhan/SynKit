(** C01/C02 — the reaction centre of the renumbered reaction is the renumbered reaction centre *)
From Coq Require Import List NArith ZArith Bool.
From SK Require Import lib.LGraph lib.C01_GraphLemmas model.C01_Model model.C02_Model model.C01_String model.C01_Renum
  proof.C01_Proof proof.C02_Proof proof.C01_StringRenum.
Import ListNotations.
Local Open Scope Z_scope.

Definition with_iamap (n : N) (a : inode) : inode := IN (i_el a) (i_ch a) (Z.of_N n) (i_extra a) (i_G a) (i_H a).
Definition T (p : N * inode) : N * inode := (fst p, with_iamap (fst p) (snd p)).

Lemma set_iamap_nodes (g : its) : gnodes (set_iamap g) = map T (gnodes g).
Proof. reflexivity. Qed.

Lemma label_set_iamap (g : its) n : label (set_iamap g) n = option_map (with_iamap n) (label g n).
Proof. unfold label. rewrite set_iamap_nodes. apply (assoc_map_val with_iamap). Qed.

Lemma is_hh_set_iamap (g : its) u v : is_hh (set_iamap g) u v = is_hh g u v.
Proof. unfold is_hh, is_h. rewrite !label_set_iamap. destruct (label g u), (label g v); reflexivity. Qed.

Lemma has_key_T n ns : has_key n (map T ns) = has_key n ns.
Proof. unfold has_key. rewrite (assoc_map_val with_iamap). destruct (assoc n ns); reflexivity. Qed.

Lemma ensure_T (g : its) n ns : ensure_node (set_iamap g) n (map T ns) = map T (ensure_node g n ns).
Proof.
  unfold ensure_node. rewrite has_key_T. destruct (has_key n ns); [reflexivity|].
  rewrite label_set_iamap. destruct (label g n); [|reflexivity]. rewrite map_app. reflexivity.
Qed.

Definition Tst (st : rc_state) : rc_state := (map T (fst st), snd st).

Lemma step_changed_T (g : its) st e : step_changed (set_iamap g) (Tst st) e = Tst (step_changed g st e).
Proof.
  destruct e as [[u v] x]. unfold step_changed, Tst. cbn [fst snd]. destruct (changed x); [|reflexivity].
  rewrite !ensure_T. reflexivity.
Qed.

Lemma step_hh_T (g : its) st e : step_hh (set_iamap g) (Tst st) e = Tst (step_hh g st e).
Proof.
  destruct e as [[u v] x]. unfold step_hh, Tst. cbn [fst snd]. rewrite is_hh_set_iamap. destruct (is_hh g u v); [|reflexivity].
  rewrite !ensure_T. reflexivity.
Qed.

Lemma fold_T (step : its -> rc_state -> N * N * iedge -> rc_state) (g : its) :
  (forall st e, step (set_iamap g) (Tst st) e = Tst (step g st e)) ->
  forall l st, fold_left (step (set_iamap g)) l (Tst st) = Tst (fold_left (step g) l st).
Proof. intros H l. induction l as [|e l IH]; intros st; [reflexivity|]. cbn [fold_left]. rewrite H. apply IH. Qed.

(** get_rc commutes with "atom_map := node id" *)
Lemma get_rc_set_iamap (g : its) : get_rc (set_iamap g) = set_iamap (get_rc g).
Proof.
  unfold get_rc. change (gedges (set_iamap g)) with (gedges g).
  change (([], []) : rc_state) with (Tst ([], [])).
  rewrite (fold_T step_changed g (step_changed_T g)), (fold_T step_hh g (step_hh_T g)).
  reflexivity.
Qed.

Theorem renumber_centre (f : N -> N) : (forall a b, f a = f b -> a = b) -> (forall a, a <> 0%N -> f a <> 0%N) ->
  forall mr mp : rmol,
  get_rc (its_construct (graph_of (renum_mol f mr)) (graph_of (renum_mol f mp))) =
  set_iamap (relabel f (get_rc (its_construct (graph_of mr) (graph_of mp)))).
Proof.
  intros Hinj Hnz mr mp. destruct (renumber f Hinj Hnz mr mp) as [_ ->].
  rewrite get_rc_set_iamap, (rc_equivariant f Hinj). reflexivity.
Qed.

Example C01_renumber_centre_nonvacuous :
  node_ids (get_rc (its_construct (graph_of (renum_mol (N.add 10) C01_StringPipe.ex_mr)) (graph_of (renum_mol (N.add 10) C01_StringPipe.ex_mp)))) = [11; 12; 13]%N /\
  node_ids (get_rc (its_construct (graph_of C01_StringPipe.ex_mr) (graph_of C01_StringPipe.ex_mp))) = [1; 2; 3]%N.
Proof. split; reflexivity. Qed.
