(** C12 -- proofs about model/C12_Trace.v: the trace follows the control flow of [search_loop] (its length is the number of
    GraphMatcher objects [search_subgraphs] counts), lists k-subsets of the pattern in descending size, and in maximum mode
    stops at the first level that yields an isomorphism. *)
From Coq Require Import List NArith ZArith Bool Arith Lia.
From SK Require Import lib.LGraph model.C12_Model model.C12_Trace proof.C12_Search.
Import ListNotations.
Local Open Scope nat_scope.

Section Trace.
Variable nm : option nattr -> option nattr -> bool.
Variable em : eattr -> eattr -> bool.
Variables pattern host : graph.

Lemma level_trace_length k : length (level_trace nm em pattern host k) = length (combs (node_ids pattern) k).
Proof. unfold level_trace. apply map_length. Qed.

Lemma level_trace_found k :
  existsb (fun p => negb (snd p =? 0)) (level_trace nm em pattern host k) =
  match level nm em pattern host k with [] => false | _ :: _ => true end.
Proof.
  unfold level_trace, level. induction (combs (node_ids pattern) k) as [|c r IH]; simpl; [reflexivity|].
  rewrite IH. destruct (sub_isos nm em pattern host c); reflexivity.
Qed.

Lemma level_trace_zero k : level nm em pattern host k = [] ->
  forall p, In p (level_trace nm em pattern host k) -> snd p = 0.
Proof.
  intros El p Hp. apply in_map_iff in Hp. destruct Hp as (c & <- & Hc). simpl.
  destruct (sub_isos nm em pattern host c) as [|x r] eqn:Es; [reflexivity|]. exfalso.
  assert (I : In x (level nm em pattern host k)) by (apply in_flat_map; exists c; split; [exact Hc|rewrite Es; now left]).
  rewrite El in I. destruct I.
Qed.

Lemma add_new_nil_acc cands : cands = [] -> add_new [] cands = ([], false).
Proof. intros ->. reflexivity. Qed.

Lemma trace_loop_mcs k : forall tried acc' best' tried',
  search_loop nm em true pattern host k [] 0 tried = (acc', best', tried') ->
  tried' = tried + length (trace_loop nm em true pattern host k).
Proof.
  induction k as [|k' IH]; intros tried acc' best' tried' E.
  - inversion E; subst. simpl. lia.
  - rewrite search_loop_mcs_step in E. cbn [trace_loop andb]. rewrite level_trace_found.
    destruct (level nm em pattern host (S k')).
    + rewrite (IH _ _ _ _ E), app_length, level_trace_length. lia.
    + inversion E. now rewrite level_trace_length.
Qed.

Lemma trace_loop_all k : forall acc best tried acc' best' tried',
  search_loop nm em false pattern host k acc best tried = (acc', best', tried') ->
  tried' = tried + length (trace_loop nm em false pattern host k).
Proof.
  induction k as [|k' IH]; intros acc best tried acc' best' tried' E.
  - inversion E; subst. simpl. lia.
  - rewrite search_loop_all_step in E. cbn [trace_loop andb].
    rewrite (IH _ _ _ _ _ _ E), app_length, level_trace_length. lia.
Qed.

(** the trace has one entry per GraphMatcher object the search counts *)
Theorem search_trace_length mcs :
  length (search_trace nm em pattern host mcs) = snd (search_subgraphs nm em pattern host mcs).
Proof.
  unfold search_trace, search_subgraphs.
  destruct (search_loop nm em mcs pattern host (Nat.min (n_nodes pattern) (n_nodes host)) [] 0 0) as [[maps best] tried] eqn:E.
  simpl. destruct mcs.
  - now rewrite (trace_loop_mcs _ _ _ _ _ E).
  - now rewrite (trace_loop_all _ _ _ _ _ _ _ E).
Qed.

(** what the entries are: for some level k <= min(|pattern|, |host|) the subset is one of the k-subsets of the pattern's nodes
    (a sub-list in node order) and the count is the number of results of the verified enumerator for it *)
Theorem search_trace_entries mcs nodes c :
  In (nodes, c) (search_trace nm em pattern host mcs) ->
  exists k, 1 <= k <= Nat.min (n_nodes pattern) (n_nodes host) /\ In nodes (combs (node_ids pattern) k) /\
            c = length (sub_isos nm em pattern host nodes).
Proof.
  unfold search_trace. generalize (Nat.min (n_nodes pattern) (n_nodes host)) as K.
  induction K as [|k' IH]; [intros []|]. cbn [trace_loop].
  assert (L : In (nodes, c) (level_trace nm em pattern host (S k')) ->
              exists k, 1 <= k <= S k' /\ In nodes (combs (node_ids pattern) k) /\ c = length (sub_isos nm em pattern host nodes)).
  { intros I. apply in_map_iff in I. destruct I as (n0 & E & I). inversion E; subst. exists (S k'). repeat split; auto; lia. }
  destruct (mcs && existsb (fun p => negb (snd p =? 0)) (level_trace nm em pattern host (S k'))); [exact L|].
  intros I. apply in_app_or in I. destruct I as [I|I]; [now apply L|].
  destruct (IH I) as (k & Hk & R). exists k. split; [lia|exact R].
Qed.

(** maximum mode: the search stops at the first level that yields an isomorphism -- every entry of the trace except those of
    its LAST level has count 0, and if some isomorphism exists at all the last level has one *)
Theorem search_trace_early_exit k :
  let t := trace_loop nm em true pattern host k in
  (forall j, 1 <= j <= k -> level nm em pattern host j = []) /\ (forall p, In p t -> snd p = 0) \/
  exists b, 1 <= b <= k /\ level nm em pattern host b <> [] /\ (forall j, b < j <= k -> level nm em pattern host j = []) /\
            exists pre, t = pre ++ level_trace nm em pattern host b /\ forall p, In p pre -> snd p = 0.
Proof.
  induction k as [|k' IH]; intros t.
  - left. split; [intros j Hj; lia|intros p []].
  - unfold t. cbn [trace_loop andb]. rewrite level_trace_found.
    destruct (level nm em pattern host (S k')) as [|m0 r] eqn:El.
    + pose proof (level_trace_zero (S k') El) as Hz.
      destruct IH as [(Hall & Hzero)|(b & Hb & Hne & Hall & pre & Et & Hpre)]; [left|right; exists b].
      * split; [now apply upto_S|].
        intros p Hp. apply in_app_or in Hp. destruct Hp as [Hp|Hp]; [now apply Hz|now apply Hzero].
      * split; [lia|]. split; [exact Hne|]. split; [now apply (upto_S (fun j => level nm em pattern host j = []))|].
        exists (level_trace nm em pattern host (S k') ++ pre). split; [rewrite Et, app_assoc; reflexivity|].
        intros p Hp. apply in_app_or in Hp. destruct Hp as [Hp|Hp]; [now apply Hz|now apply Hpre].
    + right. exists (S k'). rewrite El. split; [lia|]. split; [discriminate|]. split; [intros j Hj; lia|].
      exists []. split; [reflexivity|intros p []].
Qed.

End Trace.

Module Example_trace12.
(** C(1)-C(2)(=O(3)) against O(7)=C(8): level 2 has three subsets, only {2,3} has an image; the search stops there *)
Definition at_ (e : N) : nattr := (Some e, [Some e]).
Definition gA : graph := LG [(1, at_ 1); (2, at_ 1); (3, at_ 2)]%N [(1, 2, [Some 2%Z]); (2, 3, [Some 4%Z])]%N.
Definition gB : graph := LG [(7, at_ 2); (8, at_ 1)]%N [(7, 8, [Some 4%Z])]%N.
Example trace_mcs : fcs_trace [0%N] false 0%N gA gB true = [([7; 8]%N, 1)].
Proof. vm_compute. reflexivity. Qed.
Example trace_mcs_swapped : fcs_trace [0%N] false 0%N gB gA true = [([7; 8]%N, 1)].
Proof. vm_compute. reflexivity. Qed.
Example trace_all : fcs_trace [0%N] false 0%N gA gB false = [([7; 8]%N, 1); ([7]%N, 1); ([8]%N, 2)].
Proof. vm_compute. reflexivity. Qed.
(** the MTG copy keeps the first graph as pattern: three 2-subsets, one with an image *)
Example trace_mtg : mtg_trace [0%N] gA gB true = [([1; 2]%N, 0); ([1; 3]%N, 0); ([2; 3]%N, 1)].
Proof. vm_compute. reflexivity. Qed.
End Example_trace12.
