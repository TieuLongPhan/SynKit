(** C16 — bipartite export with integer_ids=True: the documented numbering.  Species nodes are 1..N in sorted label order,
    reaction nodes N+1..N+M in sorted id order (N = number of exported species). *)
From stdpp Require Import gmap strings sets pretty sorting.
From SK Require Import lib.Tok model.C15_Model proof.C15_Proof model.C16_Model proof.C16_Defs proof.C16_Common proof.C16_BipA.
Local Open Scope string_scope.
Local Open Scope list_scope.

Section num.
  Context (fl : bflags) (H : net) (Hint : f_int fl = true).

  Lemma add_sp_node_new st s : e_smap st !! s = None →
    e_smap (add_sp_node fl H st s).1 = <[ s := inl (e_next st) ]> (e_smap st) ∧
    e_next (add_sp_node fl H st s).1 = (e_next st + 1)%N.
  Proof. intros Hs. unfold add_sp_node. rewrite Hs, Hint. cbn. done. Qed.

  Lemma fold_sp_other (l : list string) s : s ∉ l → ∀ st,
    e_smap (foldl (λ st s, (add_sp_node fl H st s).1) st l) !! s = e_smap st !! s.
  Proof.
    induction l as [|x l IH]; intros Hs st; [done|]. apply not_elem_of_cons in Hs as [Hx Hl]. cbn [foldl]. rewrite IH by done.
    unfold add_sp_node. destruct (e_smap st !! x); [done|]. cbn. by rewrite lookup_insert_ne.
  Qed.

  Lemma fold_sp_num (l : list string) : NoDup l → ∀ st, (∀ s, s ∈ l → e_smap st !! s = None) →
    e_next (foldl (λ st s, (add_sp_node fl H st s).1) st l) = (e_next st + N.of_nat (length l))%N ∧
    (∀ i s, l !! i = Some s →
       e_smap (foldl (λ st s, (add_sp_node fl H st s).1) st l) !! s = Some (inl (e_next st + N.of_nat i)%N)).
  Proof.
    induction 1 as [|s l Hs Hnd IH]; intros st Hfresh.
    - cbn. split; [lia|]. intros i s Hi. by rewrite lookup_nil in Hi.
    - cbn [foldl]. destruct (add_sp_node_new st s) as [Hm Hx]; [apply Hfresh; by left|].
      destruct (IH (add_sp_node fl H st s).1) as [Hn Hl].
      { intros s' Hs'. rewrite Hm, lookup_insert_ne by (intros ->; done). apply Hfresh. by right. }
      split.
      + rewrite Hn, Hx. cbn [length]. lia.
      + intros [|i] s' Hi; cbn in Hi.
        * injection Hi as <-. rewrite fold_sp_other, Hm, lookup_insert by done. f_equal. f_equal. lia.
        * rewrite (Hl i s' Hi), Hx. f_equal. f_equal. lia.
  Qed.

End num.

Lemma species_iter_nodup fl H : NoDup (species_iter fl H).
Proof. unfold species_iter, sort_strings. rewrite merge_sort_Permutation. apply NoDup_elements. Qed.

Lemma bipartite_numbering (fl : bflags) (H : net) : f_int fl = true → wf_species H →
  (∀ i s, species_iter fl H !! i = Some s →
     b_nodes (hypergraph_to_bipartite fl H) !! inl (N.of_nat i + 1)%N = Some (sp_attrs fl H s)) ∧
  (∀ j e rx, sort_by_key (map_to_list (edges H)) !! j = Some (e, rx) →
     b_nodes (hypergraph_to_bipartite fl H) !! inl (N.of_nat (length (species_iter fl H) + j) + 1)%N
     = Some (rx_attrs fl e (r_rule rx))).
Proof.
  intros Hint Hwf.
  destruct (fold_sp_num fl H Hint (species_iter fl H) (species_iter_nodup fl H) (Est ∅ ∅ ∅ 1%N)) as [Hn0 HM].
  { intros s _. apply lookup_empty. }
  fold (sp_state fl H) in Hn0, HM. cbn [e_next] in Hn0, HM.
  destruct (export_state_RxInv fl H Hwf (or_introl Hint)) as (R & HI & Hnum).
  unfold hypergraph_to_bipartite. cbn [b_nodes]. split.
  - intros i s Hi. apply (rxi_nodes _ _ _ _ _ HI). left. exists s. split; [|done].
    unfold sp_map. etrans; [exact (HM i s Hi)|]. f_equal. f_equal. lia.
  - intros j e rx Hj. apply (rxi_nodes _ _ _ _ _ HI). right. exists e, rx. split; [by eapply elem_of_list_lookup_2|].
    split; [|done]. etrans; [exact (Hnum j e rx Hj)|]. unfold rx_nid. rewrite Hint, Hn0. f_equal. f_equal. lia.
Qed.

(** non-vacuity *)
Definition ex_num_net : net :=
  mk_net ["K"] [(Some "z", "r", [("B", 2%Z)], [("A", 1%Z)]); (Some "a", "q", [("A", 1%Z)], [("C", 1%Z)])] [].
Definition ex_num_fl : bflags := BFlags (Some "S:") (Some "R:") 0 1 true true true true true true.
Example ex_num :
  species_iter ex_num_fl ex_num_net = ["A"; "B"; "C"; "K"] ∧ (sort_by_key (map_to_list (edges ex_num_net))).*1 = ["a"; "z"] ∧
  (bn_label <$> b_nodes (hypergraph_to_bipartite ex_num_fl ex_num_net) !! inl 4%N) = Some (Some "K") ∧
  (bn_eid <$> b_nodes (hypergraph_to_bipartite ex_num_fl ex_num_net) !! inl 6%N) = Some (Some "z").
Proof. by vm_compute. Qed.
