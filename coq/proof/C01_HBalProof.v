(** C01 — implicit_hydrogen conserves the number of hydrogens (model/C01_HBal.v): explicit hydrogen atoms + hcounts.
    This is the conservation law the lone-hydrogen defect (/repo 3ba7a77) violated: a hydrogen without a non-hydrogen
    neighbour was deleted although no hcount had taken it up. *)
From Coq Require Import List NArith ZArith Bool Lia Arith Permutation.
From SK Require Import lib.LGraph lib.C01_GraphLemmas model.C01_Model model.C02_Model model.C01_String model.C01_HBal model.C01_Prem
  proof.C01_OptsProof proof.C01_Proof proof.C01_StringProof proof.C01_StringHyd proof.C01_StringHydExt proof.C01_StringPipe proof.C01_StringPipeH proof.C01_PremProof.
Import ListNotations.
Local Open Scope Z_scope.

(** * sums *)
Lemma sumZ_cons {X} (f : X -> Z) a l : sumZ f (a :: l) = f a + sumZ f l.
Proof. reflexivity. Qed.
Lemma sumZ_ext_in {X} (f g : X -> Z) l : (forall x, In x l -> f x = g x) -> sumZ f l = sumZ g l.
Proof. induction l as [|a l IH]; intros H; [reflexivity|]. rewrite !sumZ_cons, (H a (or_introl eq_refl)), IH; [reflexivity|]. intros x I. apply H. right. exact I. Qed.
Lemma sumZ_add {X} (f g : X -> Z) l : sumZ (fun x => f x + g x) l = sumZ f l + sumZ g l.
Proof. induction l as [|a l IH]; [reflexivity|]. rewrite !sumZ_cons, IH. lia. Qed.
Lemma sumZ_filter {X} (p : X -> bool) (f : X -> Z) l : sumZ f (filter p l) = sumZ (fun x => if p x then f x else 0) l.
Proof. induction l as [|a l IH]; [reflexivity|]. cbn [filter]. rewrite sumZ_cons. destruct (p a); rewrite ?sumZ_cons, IH; reflexivity. Qed.
Lemma sumZ_indicator {X} (p : X -> bool) l : sumZ (fun x => if p x then 1 else 0) l = Z.of_nat (length (filter p l)).
Proof. induction l as [|a l IH]; [reflexivity|]. rewrite sumZ_cons, IH. cbn [filter]. destruct (p a); cbn [length]; lia. Qed.

(** double counting *)
Lemma count_swap {X Y} (r : X -> Y -> bool) (l1 : list X) (l2 : list Y) :
  sumZ (fun x => Z.of_nat (length (filter (r x) l2))) l1 = sumZ (fun y => Z.of_nat (length (filter (fun x => r x y) l1))) l2.
Proof.
  induction l1 as [|a l1 IH].
  - induction l2 as [|b l2 IH2]; [reflexivity|]. rewrite sumZ_cons, <- IH2. reflexivity.
  - rewrite sumZ_cons, IH.
    rewrite <- sumZ_indicator, <- sumZ_add. apply sumZ_ext_in. intros y _. cbn [filter]. destruct (r a y); cbn [length]; lia.
Qed.

(** a duplicate-free list inside a duplicate-free universe: counting in the list = counting in the universe *)
Lemma filter_via_universe (p : N -> bool) (L U : list N) : NoDup L -> NoDup U -> incl L U ->
  length (filter p L) = length (filter (fun h => mem h L && p h) U).
Proof.
  intros NL NU Inc. apply Permutation_length. apply NoDup_Permutation; try (apply NoDup_filter; assumption).
  intros x. rewrite !filter_In, andb_true_iff, mem_spec. split; [intros [I P]; auto|intros [_ [I P]]; auto].
Qed.

Lemma filter_split3 (a b c : N -> bool) (L : list N) :
  (forall x, In x L -> a x = b x || c x) -> (forall x, In x L -> b x = true -> c x = false) ->
  length (filter a L) = (length (filter b L) + length (filter c L))%nat.
Proof.
  induction L as [|x L IH]; intros H1 H2; [reflexivity|]. cbn [filter].
  rewrite (H1 x (or_introl eq_refl)).
  assert (length (filter a L) = (length (filter b L) + length (filter c L))%nat) as E
    by (apply IH; intros y I; [apply H1|apply H2]; right; exact I).
  specialize (H2 x (or_introl eq_refl)).
  destruct (b x); cbn [orb length].
  - rewrite (H2 eq_refl). cbn [length]. lia.
  - destruct (c x); cbn [length]; lia.
Qed.

Section Balance.
Variable g : mgraph.
Variable pres : list Z.
Hypothesis W : wf g.
Hypothesis OP : one_parent g.

Let U := node_ids g.
Let rem := ih_removed g pres.
Let heavy (n : N) := negb (is_Hn g n).

Lemma nbrs_incl n : incl (nbrs g n) U.
Proof.
  intros h I. apply in_nbrs in I. destruct (adj g n h) as [x|] eqn:A; [|congruence].
  apply (wf_adj_iff W) in A. destruct A as [A|A]; apply (wf_edge_nodes W) in A; tauto.
Qed.

(** a hydrogen bonded to a non-hydrogen atom has a non-hydrogen neighbour *)
Lemma nbr_has_heavy n h : is_Hn g n = false -> In h (nbrs g n) -> has_heavy g h = true.
Proof.
  intros Hn I. apply has_heavy_spec. exists n. split; [|exact Hn]. apply mem_spec. rewrite mem_nbrs_sym. apply mem_spec. exact I.
Qed.

(** what a non-hydrogen atom gains = the number of its hydrogen neighbours that are removed *)
Lemma gain_spec n : is_Hn g n = false ->
  count_h g n - count_pres g pres n = Z.of_nat (length (filter (fun h => mem h (nbrs g n) && rem h) U)).
Proof.
  intros Hn. rewrite (count_pres_nbrs g pres n W). unfold count_h.
  rewrite <- (filter_via_universe rem (nbrs g n) U (@nbrs_nodup _ _ g n W) (proj1 W) (nbrs_incl n)).
  rewrite (filter_split3 (is_Hn g) (fun m => mem m (preserved g pres)) rem (nbrs g n)).
  - lia.
  - intros h I. unfold rem, ih_removed. rewrite (nbr_has_heavy n h Hn I), andb_true_r.
    destruct (mem h (preserved g pres)) eqn:M; cbn [negb andb orb].
    + apply mem_spec in M. rewrite (preserved_isH g pres h W M). reflexivity.
    + rewrite andb_true_r. reflexivity.
  - intros h I M. unfold rem, ih_removed. rewrite M. cbn [negb]. rewrite andb_false_r. reflexivity.
Qed.

(** a removed hydrogen has exactly one non-hydrogen neighbour *)
Lemma removed_one_parent h : rem h = true -> length (filter (fun n => heavy n && mem h (nbrs g n)) U) = 1%nat.
Proof.
  intros R. unfold rem, ih_removed in R. apply andb_true_iff in R. destruct R as [R Hh]. apply andb_true_iff in R. destruct R as [Hn _].
  rewrite (filter_ext (fun n => heavy n && mem h (nbrs g n)) (fun n => mem n (nbrs g h) && heavy n))
    by (intros n; rewrite (@mem_nbrs_sym _ _ g h n); apply andb_comm).
  rewrite <- (filter_via_universe heavy (nbrs g h) U (@nbrs_nodup _ _ g h W) (proj1 W) (nbrs_incl h)).
  pose proof (OP h Hn) as Le. unfold has_heavy in Hh. apply existsb_exists in Hh. destruct Hh as (m & Im & Hm).
  assert (In m (filter heavy (nbrs g h))) as If by (apply filter_In; split; assumption).
  unfold heavy in *. destruct (filter (fun n => negb (is_Hn g n)) (nbrs g h)) as [|x [|y l]]; [destruct If|reflexivity|cbn in Le; lia].
Qed.

Lemma gains_equal_removed :
  sumZ (fun n => if heavy n then count_h g n - count_pres g pres n else 0) U = Z.of_nat (length (filter rem U)).
Proof.
  rewrite (sumZ_ext_in _ (fun n => Z.of_nat (length (filter (fun h => heavy n && mem h (nbrs g n) && rem h) U)))).
  - rewrite (count_swap (fun n h => heavy n && mem h (nbrs g n) && rem h) U U).
    rewrite <- sumZ_indicator. apply sumZ_ext_in. intros h _. destruct (rem h) eqn:R.
    + rewrite (filter_ext (fun n => heavy n && mem h (nbrs g n) && true) (fun n => heavy n && mem h (nbrs g n)))
        by (intros n; apply andb_true_r).
      rewrite (removed_one_parent h R). reflexivity.
    + rewrite (filter_ext (fun n => heavy n && mem h (nbrs g n) && false) (fun _ => false)) by (intros n; apply andb_false_r).
      rewrite (filter_nil (fun _ : N => false)); [reflexivity|reflexivity].
  - intros n _. unfold heavy. destruct (is_Hn g n) eqn:Hn; cbn [negb].
    + rewrite (filter_nil (fun h => false && mem h (nbrs g n) && rem h)); [reflexivity|reflexivity].
    + rewrite (gain_spec n Hn). reflexivity.
Qed.

Theorem hydrogen_balance : h_total (implicit_hydrogen g pres) = h_total g.
Proof.
  destruct (implicit_hydrogen_spec g pres W) as (HL & _ & _).
  unfold h_total. rewrite ih_node_ids. fold U. rewrite sumZ_filter.
  rewrite (sumZ_ext_in _ (fun n => h_weight g n + ((if heavy n then count_h g n - count_pres g pres n else 0) + (if rem n then -1 else 0)))).
  - rewrite !sumZ_add, gains_equal_removed.
    assert (sumZ (fun n => if rem n then -1 else 0) U = - Z.of_nat (length (filter rem U))) as ->; [|lia].
    rewrite <- sumZ_indicator. induction U as [|a l IH]; [reflexivity|]. rewrite !sumZ_cons, IH. destruct (rem a); lia.
  - intros n In_. apply node_label_some in In_. destruct In_ as (a & La). unfold h_weight, heavy, rem. rewrite HL, La.
    unfold ih_removed, is_Hn. rewrite La. fold (is_H a). destruct (is_H a) eqn:Ha; cbn [negb andb].
    + destruct (mem n (preserved g pres)); cbn [negb andb orb]; [rewrite Ha; lia|].
      destruct (has_heavy g n); cbn [negb]; [lia|rewrite Ha; lia].
    + cbn [set_hc g_el g_hc]. unfold is_H. cbn [set_hc g_el]. fold (is_H a). rewrite Ha. cbn [set_hc g_hc]. lia.
Qed.
End Balance.

(** the rule of /repo before 3ba7a77 (every non-preserved hydrogen is removed) breaks the balance: a lone proton next to a
    preserved hydrogen - witness of the defect on a model of that rule *)
Definition implicit_hydrogen_old (g : mgraph) (pres : list Z) : mgraph :=
  let rm n := is_Hn g n && negb (mem n (preserved g pres)) in
  let ns := fold_left (ih_pass2_h g) (preserved g pres) (ih_pass1 g) in
  LG (filter (fun p => negb (rm (fst p))) ns)
     (filter (fun e : N * N * Z => let '(u, v, _) := e in negb (rm u) && negb (rm v)) (gedges g)).

Definition ex_bal : mgraph :=
  LG [(1%N, GN 82%N false 0 0 None 1); (2%N, GN EL_H false 0 0 None 2); (3%N, GN EL_H false 0 1 None 3); (4%N, GN EL_H false 0 0 None 4)]
     [(1%N, 2%N, 2); (1%N, 4%N, 2)].

Example C01_hydrogen_balance_nonvacuous :
  wf ex_bal /\ one_parent ex_bal /\ h_total ex_bal = 3 /\ h_total (implicit_hydrogen ex_bal [2]) = 3 /\
  h_total (implicit_hydrogen_old ex_bal [2]) = 2 /\
  label (implicit_hydrogen ex_bal [2]) 3%N <> None /\ label (implicit_hydrogen ex_bal [2]) 4%N = None /\
  option_map g_hc (label (implicit_hydrogen ex_bal [2]) 1%N) = Some 1.
Proof.
  split; [apply wfb_spec; reflexivity|].
  split; [apply one_parentb_spec; vm_compute; reflexivity|].
  repeat split; try reflexivity. discriminate.
Qed.

Lemma smi_graph_balance (X : mgraph) hl : wf X -> one_parent X -> h_total (smi_graph X hl) = h_total X.
Proof. intros WX OX. destruct hl; [reflexivity|]. apply hydrogen_balance; assumption. Qed.

(** ... hence what its_to_rsmi hands to GraphToMol stands for as many hydrogens, on each side, as the decomposed graphs *)
Corollary its_to_graphs_balance (I : its) : wf I ->
  (one_parent (fst (its_decompose I)) -> h_total (fst (its_to_graphs I)) = h_total (fst (its_decompose I))) /\
  (one_parent (snd (its_decompose I)) -> h_total (snd (its_to_graphs I)) = h_total (snd (its_decompose I))).
Proof.
  intros W. unfold its_to_graphs. cbn [fst snd]. split; intros OP; apply smi_graph_balance; try exact OP; apply dec_wf; exact W.
Qed.

(** the hypothesis [one_parent] is needed: a hydrogen bridging two non-hydrogen atoms is taken up by BOTH hcounts (the code
    counts hydrogen neighbours per atom), so folding it creates a hydrogen.  Such graphs do not come out of a sanitised RDKit
    molecule (hydrogen with two bonds); the `ih` population contains them and model and code agree on them. *)
Definition ex_bridge : mgraph :=
  LG [(1%N, GN 82%N false 0 0 None 1); (2%N, GN EL_H false 0 0 None 2); (3%N, GN 82%N false 0 0 None 3)] [(1%N, 2%N, 2); (2%N, 3%N, 2)].
Example C01_hydrogen_balance_needs_one_parent :
  ~ one_parent ex_bridge /\ h_total ex_bridge = 1 /\ h_total (implicit_hydrogen ex_bridge []) = 2.
Proof.
  split; [|split; reflexivity]. intros OP. specialize (OP 2%N eq_refl). cbn in OP. lia.
Qed.
