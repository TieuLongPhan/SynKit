(** C15 — non-vacuity of the theorems about the extended history
    language: one concrete history that exercises every kind of [op2], and the
    facts the theorems speak about evaluated on it. *)
From stdpp Require Import gmap strings sets.
From SK Require Import model.C15_Model model.C15_Ext proof.C15_Proof proof.C15_Ext proof.C15_ExtQ.
Local Open Scope string_scope.

Local Instance qerr_eq_dec : EqDecision qerr.
Proof. solve_decision. Defined.
Local Instance err_eq_dec2 : EqDecision err.
Proof. solve_decision. Defined.

Definition ex2_ops : list op2 :=
  [ OAddItems 0 [IPair "A" 1; ILabel "r_2"; ILabel ""; IPair "A" 2; IPair "Q" (-1)] [ILabel "B"; ILabel "B"] "" None;
    OBase (OAdd 0 [("B", 1%Z)] [("C", 1%Z); ("x", 1%Z)] "q" (Some "x"));
    OBase (OSetMolMap 0 [("A", "9"); ("r_1", "e"); ("B", ""); ("A", "0")] false false);
    OPoolNew 0 [ILabel "C"];
    OPoolNew 1 [IPair "A" 2];
    OAddPool 0 0 1 "r" None;
    OPoolEdit 0 "Z" 5;
    OSideSet 0 "r_1" true "A" 7;
    OSideSet 0 "r_1" true "Q" 7;
    OAddFrom 1 0 "x" "r" None;
    OMergeRaw 1 [(None, "", [ILabel "x"], [IPair "D" 2]); (Some "r_1", "r", [ILabel "D"], [])] false;
    OQuery 0 (QPaths "C" "B" 4 None);
    OBase (ORemoveSpecies 0 "B" true) ].

Definition ex2_w0 : world2 := fold_left (λ w o, (step2 w o).1.1) (take 12 ex2_ops) (init_world2 2 2).
Definition ex2_w : world2 := fold_left (λ w o, (step2 w o).1.1) ex2_ops (init_world2 2 2).
Definition ex2_n0 : net := getn (nets ex2_w0) 0.
Definition ex2_n0' : net := getn (nets ex2_w) 0.
Definition ex2_n1 : net := getn (nets ex2_w) 1.

Example C15_ext_inv_nonvacuous : Forall Inv (nets ex2_w) ∧ Forall Inv (nets ex2_w0).
Proof. split; apply run2_Inv, init_world_Inv. Qed.

(** input forms, generated ids next to look-alike names, labels (later entry
    wins, falsy values kept, the reaction id r_1 never labelled), caller-held
    objects edited after the call, coefficient edit (and a refused key-set
    edit), sides taken from another network, duck-typed merge *)
Example C15_ext_state_nonvacuous :
  order ex2_n0 = ["r_1"; "x"; "r_2"] ∧
  (r_lhs <$> edges ex2_n0 !! "r_1") = Some {[ "A" := 7%positive; "r_2" := 1%positive ]} ∧
  (r_rhs <$> edges ex2_n0 !! "r_1") = Some {[ "B" := 2%positive ]} ∧
  (r_lhs <$> edges ex2_n0 !! "r_2") = Some {[ "C" := 1%positive ]} ∧
  pool ex2_w0 = [ {[ "C" := 1%positive; "Z" := 5%positive ]}; {[ "A" := 2%positive ]} ] ∧
  mol ex2_n0 = {[ "A" := "0"; "B" := "" ]} ∧
  get_mol ex2_n0 "A" = inr "0" ∧ get_mol ex2_n0 "B" = inr "" ∧
  get_mol ex2_n0 "r_1" = inl QKeyError ∧ get_mol ex2_n0 "C" = inl QNoLabel ∧
  contains ex2_n0 "r_1" = true ∧ contains ex2_n0 "r_2" = true ∧ contains ex2_n0 "Q" = false ∧
  len ex2_n0 = 3%nat ∧
  order ex2_n1 = ["r_1"; "_1"; "r_2"] ∧
  (r_rhs <$> edges ex2_n1 !! "_1") = Some {[ "D" := 2%positive ]} ∧
  (r_rule <$> edges ex2_n1 !! "_1") = Some "r".
Proof. split_and!; apply (bool_decide_unpack _); vm_compute; exact Logic.I. Qed.

Example C15_ext_queries_nonvacuous :
  species_list ex2_n0 = ["A"; "B"; "C"; "r_2"; "x"] ∧
  edge_ids_sorted ex2_n0 = ["r_1"; "r_2"; "x"] ∧
  neighbors ex2_n0 "B" = inr {[ "C"; "x" ]} ∧
  neighbors ex2_n0 "r_1" = inl QKeyError ∧
  paths ex2_n0 "C" "B" 4 None = inr [["C"; "A"; "B"]] ∧
  paths ex2_n0 "C" "B" 1 None = inr [] ∧
  paths ex2_n0 "B" "B" 0 (Some 0%Z) = inr [["B"]] ∧
  paths ex2_n0 "B" "x" 4 (Some 5%Z) = inr [["B"; "x"]] ∧
  dense ex2_n0 = Some [ [(-7)%Z; 2%Z; 0%Z]; [2%Z; 0%Z; (-1)%Z]; [0%Z; (-1)%Z; 1%Z]; [(-1)%Z; 0%Z; 0%Z]; [0%Z; 0%Z; 1%Z] ].
Proof. split_and!; apply (bool_decide_unpack _); vm_compute; exact Logic.I. Qed.

(** after remove_species the copy of x's sides held by network 1 is untouched *)
Example C15_ext_independent_nonvacuous :
  species ex2_n0' = {[ "A"; "C"; "r_2"; "x" ]} ∧ mol ex2_n0' = {[ "A" := "0" ]} ∧
  (r_lhs <$> edges ex2_n0' !! "x") = Some ∅ ∧
  (r_lhs <$> edges ex2_n1 !! "r_1") = Some {[ "B" := 1%positive ]}.
Proof. split_and!; apply (bool_decide_unpack _); vm_compute; exact Logic.I. Qed.

(** the hypotheses of set_mol_map_absent / set_mol_map_present are inhabited *)
Definition ex2_pre : net := getn (nets (fold_left (λ w o, (step2 w o).1.1) (take 2 ex2_ops) (init_world2 2 2))) 0.
Example C15_ext_labels_nonvacuous :
  is_Some (edges ex2_pre !! "r_1") ∧ "r_1" ∉ species ex2_pre ∧
  (set_mol_map ex2_pre [("A", "9"); ("r_1", "e")] true false).2 = Some KeyError ∧
  (set_mol_map ex2_pre [("A", "9"); ("r_1", "e")] false false).2 = None ∧
  mol (set_mol_map ex2_pre [("A", "9"); ("r_1", "e")] false false).1 = {[ "A" := "9" ]} ∧
  (assign_mol ex2_pre "r_1" "e").2 = Some KeyError ∧
  (assign_mol ex2_pre "x" "").2 = None.
Proof. split_and!; apply (bool_decide_unpack _); vm_compute; exact Logic.I. Qed.

Example C15_ext_normalize_nonvacuous :
  normalize_items [IPair "A" 1; ILabel "r_2"; ILabel ""; IPair "A" 2; IPair "Q" (-1); IPair "" 3; IPair "Z" 0] =
  {[ "A" := 3%positive; "r_2" := 1%positive; "" := 3%positive ]}.
Proof. apply (bool_decide_unpack _); vm_compute; exact Logic.I. Qed.

(** the premise of the two paths theorems is inhabited: C -> A -> B is a chain *)
Local Instance rxn_eq_dec : EqDecision rxn.
Proof. solve_decision. Defined.
Definition ex2_r1 : rxn := default (Rxn "" ∅ ∅) (edges ex2_n0 !! "r_1").
Definition ex2_r2 : rxn := default (Rxn "" ∅ ∅) (edges ex2_n0 !! "r_2").
Example C15_ext_rpath_nonvacuous : rpath ex2_n0 "C" ["B"; "A"; "C"].
Proof.
  assert (H1 : edges ex2_n0 !! "r_1" = Some ex2_r1) by (apply (bool_decide_unpack _); vm_compute; exact Logic.I).
  assert (H2 : edges ex2_n0 !! "r_2" = Some ex2_r2) by (apply (bool_decide_unpack _); vm_compute; exact Logic.I).
  apply rp_step; [apply rp_step; [apply rp_src| |]| |].
  - exists "r_2", ex2_r2. split; [exact H2|]. split; apply (bool_decide_unpack _); vm_compute; exact Logic.I.
  - apply (bool_decide_unpack _); vm_compute; exact Logic.I.
  - exists "r_1", ex2_r1. split; [exact H1|]. split; apply (bool_decide_unpack _); vm_compute; exact Logic.I.
  - apply (bool_decide_unpack _); vm_compute; exact Logic.I.
Qed.

(** duck-typed merge: a missing id and a taken id are regenerated (from the RAW
    rule), an edge that normalises to nothing stops the merge with ValueError
    after the edges before it were merged *)
Definition ex2_raw_ok : list raw_edge :=
  [ (None, "", [ILabel "x"], [IPair "D" 2]); (Some "r_1", "r", [ILabel "D"], []); (Some "k", "q", [ILabel "D"], [ILabel "D"]) ].
Definition ex2_raw_bad : list raw_edge :=
  [ (Some "k", "q", [ILabel "D"], []); (Some "k2", "r", [IPair "A" 0], [ILabel ""]); (Some "k3", "q", [ILabel "D"], []) ].
Example C15_ext_merge_raw_nonvacuous :
  (merge_raw ex2_pre ex2_raw_ok false).2 = None ∧
  order (merge_raw ex2_pre ex2_raw_ok false).1 = ["r_1"; "x"; "_1"; "r_2"; "k"] ∧
  order (merge_raw ex2_pre ex2_raw_ok true).1 = ["r_1"; "x"; "_1"; "r_2"; "q_1"] ∧
  (merge_raw ex2_pre ex2_raw_bad false).2 = Some ValueError ∧
  order (merge_raw ex2_pre ex2_raw_bad false).1 = ["r_1"; "x"; "k"].
Proof. split_and!; apply (bool_decide_unpack _); vm_compute; exact Logic.I. Qed.
