(** C10 — proofs: graph_to_mol depends on the node order and the two lookups only; hence making the hydrogens of a molecule
    graph explicit and implicit again hands RDKit the same molecule. *)
From Coq Require Import List NArith ZArith Bool Lia.
From SK Require Import lib.LGraph lib.StrJoin model.C10_Model proof.C10_Views proof.C10_Build proof.C10_Copy proof.C10_MolGraph
  proof.C10_Light proof.C10_Hydrogen proof.C10_HRound proof.C10_HRoundIts proof.C10_ImpH proof.C10_G2MSpec.
Import ListNotations.
Local Open Scope Z_scope.

Lemma assoc_list_ext (l1 : list (N * natt)) : forall l2, NoDup (map fst l1) -> map fst l1 = map fst l2 ->
  (forall n, assoc n l1 = assoc n l2) -> l1 = l2.
Proof.
  induction l1 as [|[k a] t IH]; intros l2 Hnd E HL.
  - destruct l2; [reflexivity|discriminate].
  - destruct l2 as [|[k2 a2] t2]; [discriminate|]. simpl in E. injection E as Ek E. subst k. simpl in Hnd. apply NoDup_cons_iff in Hnd. destruct Hnd as [Hnot Hnd'].
    pose proof (HL k2) as H0. simpl in H0. rewrite N.eqb_refl in H0. assert (a = a2) as -> by congruence. f_equal. apply IH; [exact Hnd'|exact E|].
    intros n0. specialize (HL n0). simpl in HL. destruct (N.eqb_spec n0 k2) as [En|Hne]; [subst n0|exact HL].
    assert (assoc k2 t = None) as ->.
    { destruct (assoc k2 t) eqn:A; [|reflexivity]. exfalso. apply Hnot. apply assoc_in in A. apply (in_map fst _ _ A). }
    assert (assoc k2 t2 = None) as ->; [|reflexivity].
    destruct (assoc k2 t2) eqn:A; [|reflexivity]. exfalso. apply Hnot. rewrite E. apply assoc_in in A. apply (in_map fst _ _ A).
Qed.
Lemma gnodes_ext (G1 G2 : gr) : NoDup (node_ids G1) -> node_ids G1 = node_ids G2 -> (forall n, label G1 n = label G2 n) -> gnodes G1 = gnodes G2.
Proof. apply assoc_list_ext. Qed.

Theorem graph_to_mol_ext (G1 G2 : gr) : gwf G1 -> gwf G2 ->
  (forall u v x, adj G1 u v = Some x -> u <> v /\ scalar_ord x) ->
  node_ids G1 = node_ids G2 -> (forall n, label G1 n = label G2 n) -> (forall u v, adj G1 u v = adj G2 u v) ->
  exists atoms b1 b2, graph_to_mol G1 = Some (atoms, b1) /\ graph_to_mol G2 = Some (atoms, b2) /\
                      forall i j, bond_find i j b1 = bond_find i j b2.
Proof.
  intros W1 W2 Hm1 Eids HL HA.
  assert (forall u v x, adj G2 u v = Some x -> u <> v /\ scalar_ord x) as Hm2 by (intros u v x A; rewrite <- HA in A; apply (Hm1 u v x A)).
  destruct (graph_to_mol_spec G1 W1 Hm1) as (b1 & E1 & S1 & T1). destruct (graph_to_mol_spec G2 W2 Hm2) as (b2 & E2 & S2 & T2).
  rewrite <- (gnodes_ext G1 G2 (gwf_nd G1 W1) Eids HL) in E2. rewrite <- Eids in S2, T2.
  eexists. exists b1, b2. split; [exact E1|split; [exact E2|]].
  intros i j. destruct (bond_find i j b1) as [t|] eqn:F1.
  - destruct (T1 i j t F1) as (u & v & Iu & Iv). rewrite (S1 u v i j Iu Iv) in F1. rewrite (S2 u v i j Iu Iv), <- HA. symmetry. exact F1.
  - destruct (bond_find i j b2) as [t|] eqn:F2; [|reflexivity]. destruct (T2 i j t F2) as (u & v & Iu & Iv).
    rewrite (S1 u v i j Iu Iv) in F1. rewrite (S2 u v i j Iu Iv), <- HA in F2. congruence.
Qed.

(** well-formedness of the two hydrogen conversions *)
Lemma himp_step_gwf (G : gr) h : gwf G -> gwf (himp_step G h).
Proof.
  intros W. unfold himp_step. destruct (filter _ (nbrs G h)) as [|x r]; [exact W|]. apply gwf_remove_node.
  apply gwf_fold_set; [|exact W]. intros G' n W'. apply gwf_set_node, W'.
Qed.
Lemma h_to_implicit_gwf (g : gr) : gwf g -> gwf (h_to_implicit g).
Proof.
  intros W. unfold h_to_implicit. cbv zeta. apply gwf_fold_set; [|apply gwf_copy, W]. intros G h WG. apply himp_step_gwf, WG.
Qed.
Lemma h_to_explicit_gwf (g : gr) (nodes : option (list N)) : gwf g -> gwf (h_to_explicit g nodes false).
Proof. intros W. destruct (hexp_run g nodes false W) as (P & IE & _). exact (ei_wf _ _ _ _ IE). Qed.

(** explicit and implicit again: the molecule handed to RDKit is the same (molecule graphs: no typesGH, every hydrogen atom bare),
    for ANY node list (a subset, a single reactive atom, staged use) *)
Theorem h_roundtrip_bare_molecule (g : gr) (nodes : option (list N)) : gwfb g = true -> bare_H g -> no_tgh g = true ->
  (forall u v x, adj g u v = Some x -> u <> v /\ scalar_ord x) ->
  exists atoms b1 b2, graph_to_mol (h_to_implicit (h_to_explicit g nodes false)) = Some (atoms, b1) /\ graph_to_mol g = Some (atoms, b2) /\
                      forall i j, bond_find i j b1 = bond_find i j b2.
Proof.
  intros Hw Hb Ht Hm. pose proof (gwfb_gwf g Hw) as W. destruct (h_roundtrip_bare_mol g nodes Hw Hb Ht) as (A & B & C). cbv zeta in A, B, C.
  set (g' := h_to_implicit (h_to_explicit g nodes false)) in *.
  assert (gwf g') as W' by (apply h_to_implicit_gwf, h_to_explicit_gwf, W).
  apply (graph_to_mol_ext g' g W' W); [|exact A|exact B|exact C].
  intros u v x Ax. rewrite C in Ax. apply (Hm u v x Ax).
Qed.

Corollary h_roundtrip_molecule_nodes (g : gr) (nodes : option (list N)) : gwfb g = true -> no_H g = true -> no_tgh g = true ->
  (forall u v x, adj g u v = Some x -> u <> v /\ scalar_ord x) ->
  exists atoms b1 b2, graph_to_mol (h_to_implicit (h_to_explicit g nodes false)) = Some (atoms, b1) /\ graph_to_mol g = Some (atoms, b2) /\
                      forall i j, bond_find i j b1 = bond_find i j b2.
Proof. intros Hw Hh. exact (h_roundtrip_bare_molecule g nodes Hw (no_H_bare g Hh)). Qed.
Corollary h_roundtrip_molecule (g : gr) : gwfb g = true -> no_H g = true -> no_tgh g = true ->
  (forall u v x, adj g u v = Some x -> u <> v /\ scalar_ord x) ->
  exists atoms b1 b2, graph_to_mol (h_to_implicit (h_to_explicit g None false)) = Some (atoms, b1) /\ graph_to_mol g = Some (atoms, b2) /\
                      forall i j, bond_find i j b1 = bond_find i j b2.
Proof. exact (h_roundtrip_molecule_nodes g None). Qed.

(** non-vacuity: methylamine *)
Example h_roundtrip_molecule_ex :
  gwfb ex_methylamine = true /\ no_H ex_methylamine = true /\ no_tgh ex_methylamine = true /\
  List.length (gnodes (h_to_explicit ex_methylamine None false)) = 7%nat /\
  graph_to_mol (h_to_implicit (h_to_explicit ex_methylamine None false)) = graph_to_mol ex_methylamine /\ graph_to_mol ex_methylamine <> None.
Proof. vm_compute. repeat split. discriminate. Qed.
