(** C09 — ignore_aromaticity does not influence the ITS verdict of smiles_check: the option only changes standard_order, and
    the matcher compares the (before, after) order pair, never standard_order.  (It does influence the RC verdict: get_rc
    selects the centre by standard_order.) *)
From Coq Require Import List NArith ZArith Bool.
From SK Require Import lib.LGraph lib.C01_GraphLemmas model.C01_Model model.C02_Model model.C09_Model
  proof.C09_Valid proof.C09_Main.
From SK Require model.C01_Opts proof.C01_OptsProof proof.C02_Proof.
Import ListNotations.

Definition esE (e : N * N * iedge) : N * N * iedge := let '(u, v, x) := e in (u, v, es x).
Definition Estd (g : its) : its := LG (gnodes g) (map esE (gedges g)).

Lemma find_edge_esE u v (l : list (N * N * iedge)) : find_edge u v (map esE l) = option_map es (find_edge u v l).
Proof.
  induction l as [|[[a b] x] l IH]; simpl; [reflexivity|].
  destruct ((N.eqb a u && N.eqb b v) || (N.eqb a v && N.eqb b u))%bool; [reflexivity|exact IH].
Qed.
Lemma adj_Estd g u v : adj (Estd g) u v = option_map es (adj g u v).
Proof. unfold adj, Estd. simpl. apply find_edge_esE. Qed.

Lemma Estd_same g g' : Estd g = Estd g' -> its_same g g'.
Proof.
  intros E. assert (En : gnodes g = gnodes g') by (apply (f_equal (fun g : its => gnodes g)) in E; exact E).
  split; [unfold node_ids; rewrite En; apply Permutation.Permutation_refl|]. split; [|split].
  - apply (f_equal (fun g : its => length (gedges g))) in E. unfold Estd in E. simpl in E. rewrite !map_length in E. exact E.
  - intros n x. unfold lbl, label. rewrite En. auto.
  - intros u v. rewrite <- !adj_Estd, E. reflexivity.
Qed.

Lemma Estd_construct ia G H : Estd (C01_Opts.its_construct_o (vopts ia) G H) = Estd (its_construct G H).
Proof.
  unfold Estd. f_equal.
  change (gedges (C01_Opts.its_construct_o (vopts ia) G H)) with
    (map (fun e : N * N * Z => let '(u, v, x) := e in (u, v, C01_Opts.mk_iedge_o (vopts ia) x (order_in H u v))) (gedges G)
     ++ map (fun e : N * N * Z => let '(u, v, x) := e in (u, v, C01_Opts.mk_iedge_o (vopts ia) 0 x)) (filter (absent_in G) (gedges H))).
  change (gedges (its_construct G H)) with
    (map (fun e : N * N * Z => let '(u, v, o) := e in (u, v, mk_iedge o (order_in H u v))) (gedges G)
     ++ map (fun e : N * N * Z => let '(u, v, o) := e in (u, v, mk_iedge 0 o)) (filter (absent_in G) (gedges H))).
  rewrite !map_app, !map_map. f_equal; apply map_ext; intros [[u v] x]; reflexivity.
Qed.

(** the ITS verdict is the same for both values of ignore_aromaticity *)
Theorem its_verdict_ignores_ia (ia : bool) (G1 H1 G2 H2 : mgraph) : wf G2 -> wf H2 ->
  smiles_check_its_o ia G1 H1 G2 H2 = smiles_check_its G1 H1 G2 H2.
Proof.
  intros W1 W2. apply Bool.eq_iff_eq_true.
  rewrite (proj1 (validator_exact_o ia G1 H1 G2 H2 W1 W2)), (proj1 (validator_exact G1 H1 G2 H2 W1 W2)).
  split; apply its_isomorphic_same; apply Estd_same; auto using Estd_construct; symmetry; apply Estd_construct.
Qed.

(** hence every renumbering is accepted by the ITS method under both option values *)
Corollary renumbering_accepted_its_o (ia : bool) (f : N -> N) (G H : mgraph) :
  (forall a b, f a = f b -> a = b) -> wf G -> wf H ->
  smiles_check_its_o ia (relabel f G) (relabel f H) G H = true.
Proof.
  intros Hinj WG WH. rewrite (its_verdict_ignores_ia ia _ _ G H WG WH). exact (proj1 (validator_renumbering f G H Hinj WG WH)).
Qed.

Example ex_ia : smiles_check_its_o true ex_G ex_H ex_G ex_H = true /\ smiles_check_its_o true ex_G ex_H ex_G ex_H3 = smiles_check_its ex_G ex_H ex_G ex_H3.
Proof. vm_compute. split; reflexivity. Qed.

(** every renumbering is accepted by BOTH methods under BOTH values of ignore_aromaticity (C01_equivariant_opts: the ITS built
    with any option commutes with renaming; C02: so does get_rc) *)
Theorem validator_renumbering_options (ia : bool) (f : N -> N) (G H : mgraph) :
  (forall a b, f a = f b -> a = b) -> wf G -> wf H ->
  smiles_check_rc_o ia (relabel f G) (relabel f H) G H = true /\ smiles_check_its_o ia (relabel f G) (relabel f H) G H = true.
Proof.
  intros Hinj WG WH. destruct (validator_exact_o ia (relabel f G) (relabel f H) G H WG WH) as (E1 & E2).
  pose proof (proj1 (C01_OptsProof.equivariant_opts f Hinj (vopts ia) G H (LG [] []))) as Eq.
  split.
  - apply E2. rewrite Eq, (C02_Proof.rc_equivariant f Hinj). apply relabel_isomorphic. exact Hinj.
  - apply E1. rewrite Eq. apply relabel_isomorphic. exact Hinj.
Qed.
