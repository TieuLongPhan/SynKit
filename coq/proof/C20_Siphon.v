(** C20 — proofs about Part 1 of the model: the index predicates are the Petri-net definitions,
    [_minimal_sets] computes the inclusion-minimal candidates, [find_siphons]/[find_traps] report
    exactly the minimal non-empty siphons / traps. *)
From Coq Require Import ZArith List Bool Lia Permutation.
Import ListNotations.
From SK Require Import model.C20_Model proof.C20_Spec.
Local Open Scope nat_scope.

Lemma mem_spec x l : mem x l = true <-> In x l.
Proof.
  unfold mem. rewrite existsb_exists. split.
  - intros [y [H1 H2]]. apply Nat.eqb_eq in H2. subst. auto.
  - intros H. exists x. split; auto. apply Nat.eqb_refl.
Qed.

Lemma subset_spec T X : subset T X = true <-> incl T X.
Proof.
  unfold subset. rewrite forallb_forall. unfold incl.
  split; intros H a Ha; apply mem_spec; auto.
Qed.

Lemma subset_false T X : subset T X = false <-> ~ incl T X.
Proof.
  rewrite <- subset_spec. destruct (subset T X); split; intros; congruence.
Qed.

Lemma nonempty_incl (X Y : list nat) : X <> [] -> incl X Y -> Y <> [].
Proof. destruct X as [|x X]; [congruence|]. intros _ H E. subst. apply (H x). simpl; auto. Qed.

Lemma insert_head x l : (forall y, In y l -> snd x < snd y) -> insert_by_label x l = x :: l.
Proof.
  destruct l as [|y l]; simpl; auto. intros H.
  specialize (H y (or_introl eq_refl)). apply Nat.ltb_lt in H. now rewrite H.
Qed.

Lemma sort_sorted_seq (f : nat -> nat) n : forall a,
  sort_by_label (map (fun i => (f i, i)) (seq a n)) = map (fun i => (f i, i)) (seq a n).
Proof.
  induction n; intros a; simpl; auto.
  unfold sort_by_label in *. simpl. rewrite IHn. apply insert_head.
  intros y Hy. apply in_map_iff in Hy as [i [<- Hi]]. apply in_seq in Hi. simpl. lia.
Qed.

Lemma sns_bipartite n rs : species_nodes_sorted (bipartite_of n rs) = map sp_node (seq 0 n).
Proof.
  unfold species_nodes_sorted, bipartite_of. simpl. rewrite sort_sorted_seq, map_map. reflexivity.
Qed.

Lemma labels_bipartite n rs : species_labels (bipartite_of n rs) = seq 0 n.
Proof.
  unfold species_labels, bipartite_of. simpl. rewrite sort_sorted_seq, map_map. simpl. apply map_id.
Qed.

Lemma nth_sns n i : i < n -> nth i (map sp_node (seq 0 n)) 0 = sp_node i.
Proof.
  intros H. rewrite (nth_indep _ 0 (sp_node 0)) by (rewrite map_length, seq_length; auto).
  rewrite map_nth, seq_nth; auto.
Qed.

Lemma in_nodes_of n X i : in_range n X -> i < n ->
  (In (sp_node i) (nodes_of (map sp_node (seq 0 n)) X) <-> In i X).
Proof.
  intros HX Hi. unfold nodes_of. rewrite in_map_iff. split.
  - intros [i' [H1 H2]]. rewrite nth_sns in H1 by auto. unfold sp_node in H1. congruence.
  - intros H. exists i. split; auto. apply nth_sns; auto.
Qed.

(** the side of a reaction a role reads, and the arc the export draws for an entry of that side *)
Definition side_of (ro : role) (r : rxn) : side := match ro with Reactant => fst r | Product => snd r end.

Definition role_arc (n j : nat) (ro : role) (sc : nat * Z) : arc :=
  match ro with
  | Reactant => Arc (sp_node (fst sc)) (rx_node n j) Reactant (snd sc)
  | Product => Arc (rx_node n j) (sp_node (fst sc)) Product (snd sc)
  end.

Lemma in_arcs_of_rxn a n j r :
  In a (arcs_of_rxn n j r) <-> exists ro sc, In sc (side_of ro r) /\ a = role_arc n j ro sc.
Proof.
  unfold arcs_of_rxn. rewrite in_app_iff, !in_map_iff. split.
  - intros [[sc [<- H]]|[sc [<- H]]]; [exists Reactant|exists Product]; exists sc; auto.
  - intros [[|] [sc [H ->]]]; [left|right]; exists sc; auto.
Qed.

Lemma in_arcs_from a n rs : forall j0,
  In a (arcs_from n j0 rs) <-> exists k r, nth_error rs k = Some r /\ In a (arcs_of_rxn n (j0 + k) r).
Proof.
  induction rs as [|r rs IH]; intros j0; simpl.
  - split; [tauto|]. intros [k [r [H _]]]. destruct k; discriminate.
  - rewrite in_app_iff, IH. split.
    + intros [H|[k [r' [H1 H2]]]].
      * exists 0, r. rewrite Nat.add_0_r. auto.
      * exists (S k), r'. simpl. rewrite <- plus_n_Sm. auto.
    + intros [k [r' [H1 H2]]]. destruct k; simpl in *.
      * inversion H1; subst. rewrite Nat.add_0_r in H2. auto.
      * right. exists k, r'. rewrite <- plus_n_Sm in H2. auto.
Qed.

Lemma in_incident G r a : In a (incident G r) <-> In a (g_arcs G) /\ (a_dst a = r \/ a_src a = r).
Proof.
  unfold incident. rewrite in_app_iff, !filter_In, !Nat.eqb_eq.
  split; [intros [[H1 H2]|[H1 H2]]; auto|intros [H1 [H2|H2]]; auto].
Qed.

Lemma role_arc_incident n j k ro sc : fst sc < n ->
  (a_dst (role_arc n k ro sc) = rx_node n j \/ a_src (role_arc n k ro sc) = rx_node n j) <-> k = j.
Proof. intros H. destruct ro; simpl; unfold rx_node, sp_node; lia. Qed.

Lemma role_arc_other n j ro sc : fst sc < n -> other (rx_node n j) (role_arc n j ro sc) = sp_node (fst sc).
Proof.
  intros H. unfold other. destruct ro; cbn [role_arc a_src a_dst]; [|now rewrite Nat.eqb_refl].
  destruct (Nat.eqb_spec (sp_node (fst sc)) (rx_node n j)) as [E|_]; [|reflexivity].
  unfold sp_node, rx_node in E. lia.
Qed.

Lemma role_eqb_spec a b : role_eqb a b = true <-> a = b.
Proof. destruct a, b; simpl; split; congruence. Qed.

(** * Siphons and traps at once: sets closed from role [a] to role [b]

    A siphon is closed from Product to Reactant (every reaction producing a member consumes one), a trap from Reactant
    to Product; the two index predicates of the model are one function of the two roles. *)

Definition uses (ro : role) (r : rxn) (i : nat) : Prop := exists c, In (i, c) (side_of ro r) /\ (0 < c)%Z.

Definition closed_set (a b : role) (rs : list rxn) (X : list nat) : Prop :=
  X <> [] /\ forall r, In r rs -> (exists i, In i X /\ uses a r i) -> (exists i, In i X /\ uses b r i).

Definition closed_indices (a b : role) (G : bgraph) (sns rnodes S_idx : list nat) : bool :=
  match S_idx with
  | [] => false
  | _ => forallb (fun r => if touches G (nodes_of sns S_idx) r a then touches G (nodes_of sns S_idx) r b else true) rnodes
  end.

(** the two instances; each holds by unfolding the definitions on both sides ([consumes] is [uses Reactant], [produces]
    is [uses Product]) *)
Lemma siphon_closed : siphon = closed_set Product Reactant.
Proof. reflexivity. Qed.
Lemma trap_closed : trap = closed_set Reactant Product.
Proof. reflexivity. Qed.
Lemma is_siphon_closed : is_siphon_indices = closed_indices Product Reactant.
Proof. reflexivity. Qed.
Lemma is_trap_closed : is_trap_indices = closed_indices Reactant Product.
Proof. reflexivity. Qed.

Lemma closed_indices_nonempty a b G sns rn Y : Y <> [] ->
  closed_indices a b G sns rn Y =
  forallb (fun r => if touches G (nodes_of sns Y) r a then touches G (nodes_of sns Y) r b else true) rn.
Proof. destruct Y; [congruence|reflexivity]. Qed.

Section Touches.
Variables (n : nat) (rs : list rxn).
Hypothesis Hwf : wf_net n rs.
Variable X : list nat.
Hypothesis HX : in_range n X.

Let G := bipartite_of n rs.
Let S_nodes := nodes_of (map sp_node (seq 0 n)) X.

Lemma wf_side ro r sc : In r rs -> In sc (side_of ro r) -> fst sc < n.
Proof. intros Hr Hi. apply (Hwf r Hr sc), in_app_iff. destruct ro; auto. Qed.

Lemma touches_role ro j r : nth_error rs j = Some r ->
  (touches G S_nodes (rx_node n j) ro = true <-> exists i, In i X /\ uses ro r i).
Proof.
  intros Hj. assert (Hr : In r rs) by (eapply nth_error_In; eauto).
  unfold touches. rewrite existsb_exists. split.
  - intros [a [Ha Hc]]. apply in_incident in Ha as [Ha Hinc].
    apply in_arcs_from in Ha as (k & r' & Hk & Ha). apply in_arcs_of_rxn in Ha as (ro' & [i c] & Hi & ->).
    assert (Hlt : i < n) by (apply (wf_side ro' r' (i, c)); [eapply nth_error_In; eauto|exact Hi]).
    apply role_arc_incident in Hinc; [|exact Hlt]. simpl in Hinc. subst k.
    rewrite Hj in Hk. injection Hk as <-.
    rewrite role_arc_other in Hc by exact Hlt.
    apply andb_true_iff in Hc as [Hc Hst]. apply andb_true_iff in Hc as [Hm Hro].
    replace ro' with ro in * by (symmetry; apply role_eqb_spec; destruct ro'; exact Hro).
    apply mem_spec, in_nodes_of in Hm; auto.
    exists i. split; auto. exists c. split; auto. apply Z.ltb_lt. destruct ro; exact Hst.
  - intros [i [Hi [c [Hc Hpos]]]].
    pose proof (wf_side ro r (i, c) Hr Hc) as Hlt.
    exists (role_arc n j ro (i, c)). split.
    + apply in_incident. split; [|now apply role_arc_incident].
      apply in_arcs_from. exists j, r. split; auto. apply in_arcs_of_rxn. eauto.
    + rewrite role_arc_other by exact Hlt.
      replace (mem _ _) with true by (symmetry; apply mem_spec, in_nodes_of; auto).
      destruct ro; simpl; now apply Z.ltb_lt.
Qed.

Lemma forall_rnodes (P : nat -> bool) (Q : rxn -> Prop) :
  (forall j r, nth_error rs j = Some r -> (P (rx_node n j) = true <-> Q r)) ->
  (forallb P (g_reactions G) = true <-> forall r, In r rs -> Q r).
Proof.
  intros H. unfold G, bipartite_of; simpl. rewrite forallb_forall. split.
  - intros HP r Hr. apply In_nth_error in Hr as [j Hj]. apply (H j r Hj). apply HP.
    apply in_map. apply in_seq. split; [lia|]. simpl. apply nth_error_Some. congruence.
  - intros HQ x Hx. apply in_map_iff in Hx as [j [<- Hj]]. apply in_seq in Hj.
    destruct (nth_error rs j) as [r|] eqn:E.
    + apply (H j r E). apply HQ. eapply nth_error_In; eauto.
    + apply nth_error_None in E. lia.
Qed.

Lemma closed_pred a b :
  closed_indices a b G (species_nodes_sorted G) (g_reactions G) X = true <-> closed_set a b rs X.
Proof.
  unfold closed_set. destruct (list_eq_dec Nat.eq_dec X []) as [E|E].
  - rewrite E. split; [discriminate|]. intros [H _]. congruence.
  - rewrite closed_indices_nonempty by exact E.
    replace (species_nodes_sorted G) with (map sp_node (seq 0 n)) by (symmetry; apply sns_bipartite).
    fold S_nodes.
    rewrite forall_rnodes with (Q := fun r => (exists i, In i X /\ uses a r i) -> (exists i, In i X /\ uses b r i)).
    + split; [intros H; split; [exact E|exact H]|intros [_ H]; exact H].
    + intros j r Hj. rewrite <- (touches_role a j r Hj), <- (touches_role b j r Hj).
      destruct (touches G S_nodes (rx_node n j) a); split; auto. discriminate.
Qed.

Lemma siphon_pred :
  is_siphon_indices G (species_nodes_sorted G) (g_reactions G) X = true <-> siphon rs X.
Proof. rewrite is_siphon_closed, siphon_closed. apply closed_pred. Qed.

Lemma trap_pred :
  is_trap_indices G (species_nodes_sorted G) (g_reactions G) X = true <-> trap rs X.
Proof. rewrite is_trap_closed, trap_closed. apply closed_pred. Qed.
End Touches.

Definition incomparable (X Y : list nat) : Prop := ~ incl X Y /\ ~ incl Y X.

Lemma antichain_incomparable : antichain = ForallOrdPairs incomparable.
Proof. reflexivity. Qed.

Lemma FOP_app_one (R : list nat -> list nat -> Prop) l x :
  ForallOrdPairs R l -> Forall (fun y => R y x) l -> ForallOrdPairs R (l ++ [x]).
Proof.
  induction 1; intros HF; simpl.
  - constructor; constructor.
  - inversion HF; subst. constructor.
    + apply Forall_app. split; auto.
    + apply IHForallOrdPairs. auto.
Qed.

Lemma FOP_filter (R : list nat -> list nat -> Prop) f l :
  ForallOrdPairs R l -> ForallOrdPairs R (filter f l).
Proof.
  induction 1; simpl; [constructor|].
  destruct (f a); auto. constructor; auto.
  rewrite Forall_forall in *. intros y Hy. apply filter_In in Hy as [Hy _]. auto.
Qed.

(** invariant of the loop: [P] = candidates processed so far *)
Definition ms_inv (P out : list (list nat)) : Prop :=
  (forall X, In X out -> In X P) /\
  (forall T, In T P -> exists X, In X out /\ incl X T) /\
  ForallOrdPairs incomparable out.

Lemma ms_go_inv cands : forall P out, ms_inv P out -> ms_inv (P ++ cands) (minimal_sets_go cands out).
Proof.
  induction cands as [|X rest IH]; intros P out Hinv; simpl.
  - now rewrite app_nil_r.
  - replace (P ++ X :: rest) with ((P ++ [X]) ++ rest) by (rewrite <- app_assoc; reflexivity).
    destruct Hinv as [Ha [Hb Hc]].
    destruct (existsb (fun T => subset T X) out) eqn:E; apply IH.
    + apply existsb_exists in E as [T [HT Hs]]. apply subset_spec in Hs.
      split; [|split]; auto.
      * intros Y HY. apply in_app_iff. left. auto.
      * intros T0 HT0. apply in_app_iff in HT0 as [HT0|[<-|[]]]; eauto.
    + assert (Hno : forall T, In T out -> ~ incl T X).
      { intros T HT Hi. apply subset_spec in Hi.
        assert (existsb (fun T => subset T X) out = true) by (apply existsb_exists; eauto). congruence. }
      split; [|split].
      * intros Y HY. apply in_app_iff in HY as [HY|[<-|[]]]; apply in_app_iff.
        -- apply filter_In in HY as [HY _]. left. auto.
        -- right. simpl. auto.
      * intros T0 HT0. apply in_app_iff in HT0 as [HT0|[<-|[]]].
        -- destruct (Hb T0 HT0) as [X0 [HX0 Hi]].
           destruct (subset X X0) eqn:ES.
           ++ exists X. split; [apply in_app_iff; right; simpl; auto|].
              apply subset_spec in ES. eapply incl_tran; eauto.
           ++ exists X0. split; auto. apply in_app_iff. left. apply filter_In. split; auto. now rewrite ES.
        -- exists X. split; [apply in_app_iff; right; simpl; auto|apply incl_refl].
      * apply FOP_app_one; [apply FOP_filter; auto|].
        apply Forall_forall. intros T HT. apply filter_In in HT as [HT Hf].
        apply negb_true_iff in Hf. apply subset_false in Hf. split; auto.
Qed.

Lemma ms_inv_final cands : ms_inv cands (minimal_sets cands).
Proof.
  unfold minimal_sets. apply (ms_go_inv cands [] []).
  split; [|split]; simpl; try tauto. constructor.
Qed.

Lemma FOP_In_incl out X Y :
  ForallOrdPairs incomparable out -> In X out -> In Y out -> incl X Y -> X = Y.
Proof.
  intros H HX HY Hi.
  destruct (ForallOrdPairs_In H _ _ HX HY) as [E|[[H1 _]|[_ H1]]]; auto; contradiction.
Qed.

Lemma minimal_sets_sound cands X :
  In X (minimal_sets cands) -> In X cands /\ forall T, In T cands -> incl T X -> incl X T.
Proof.
  destruct (ms_inv_final cands) as [Ha [Hb Hc]]. intros HX. split; auto.
  intros T HT Hi. destruct (Hb T HT) as [X' [HX' Hi']].
  assert (X' = X) by (eapply FOP_In_incl; eauto; eapply incl_tran; eauto). subst. auto.
Qed.

Lemma minimal_sets_complete cands X :
  In X cands -> (forall T, In T cands -> incl T X -> incl X T) ->
  exists X', In X' (minimal_sets cands) /\ same_set X' X.
Proof.
  destruct (ms_inv_final cands) as [Ha [Hb Hc]]. intros HX Hmin.
  destruct (Hb X HX) as [X' [HX' Hi]]. exists X'. split; auto. split; auto.
Qed.

Lemma minimal_sets_antichain cands : antichain (minimal_sets cands).
Proof. rewrite antichain_incomparable. apply (ms_inv_final cands). Qed.

Inductive sublist : list nat -> list nat -> Prop :=
| sub_nil l : sublist [] l
| sub_take x c l : sublist c l -> sublist (x :: c) (x :: l)
| sub_skip x c l : sublist c l -> sublist c (x :: l).

Lemma in_combs l : forall k c, In c (combs k l) <-> sublist c l /\ length c = k.
Proof.
  assert (H0 : forall l' c, In c [[]] <-> sublist c l' /\ length c = 0).
  { intros l' c. split; [intros [<-|[]]; split; [constructor|reflexivity]|].
    intros [_ H]. destruct c; [simpl; auto|discriminate]. }
  induction l as [|x l IH]; intros [|k] c; simpl; try apply H0.
  - split; [tauto|]. intros [H1 H2]. inversion H1; subst. discriminate.
  - rewrite in_app_iff, in_map_iff. split.
    + intros [[c' [<- Hc']]|H].
      * apply IH in Hc' as [H1 H2]. split; [constructor; auto|simpl; lia].
      * apply IH in H as [H1 H2]. split; [constructor; auto|auto].
    + intros [H1 H2]. inversion H1; subst.
      * discriminate.
      * left. exists c0. split; auto. apply IH. simpl in H2. split; auto.
      * right. apply IH. auto.
Qed.

Lemma sublist_in c l : sublist c l -> incl c l.
Proof.
  induction 1; intros y Hy; simpl in *; try tauto.
  - destruct Hy; auto.
  - right. auto.
Qed.

Lemma sublist_filter f l : sublist (filter f l) l.
Proof.
  induction l; simpl; [constructor|]. destruct (f a); constructor; auto.
Qed.

Lemma sublist_length c l : sublist c l -> length c <= length l.
Proof. induction 1; simpl; lia. Qed.

(** the canonical (sorted, duplicate-free) list of a set of indices below n *)
Definition canon (n : nat) (Y : list nat) : list nat := filter (fun i => mem i Y) (seq 0 n).

Lemma canon_in n Y i : In i (canon n Y) <-> i < n /\ In i Y.
Proof.
  unfold canon. rewrite filter_In, in_seq, mem_spec. intuition lia.
Qed.

Lemma canon_same n Y : in_range n Y -> same_set (canon n Y) Y.
Proof.
  intros H. split; intros i Hi.
  - apply canon_in in Hi. tauto.
  - apply canon_in. auto.
Qed.

Lemma canon_nodup n Y : NoDup (canon n Y).
Proof. apply NoDup_filter, seq_NoDup. Qed.

Lemma canon_length n Y : in_range n Y -> NoDup Y -> length (canon n Y) = length Y.
Proof.
  intros H Hn. apply Permutation_length. apply NoDup_Permutation; auto using canon_nodup.
  intros i. rewrite canon_in. split; [tauto|auto].
Qed.

Lemma canon_candidate pred n ms Y :
  in_range n Y -> Y <> [] -> pred (canon n Y) = true -> length (canon n Y) <= ms ->
  In (canon n Y) (candidates pred n ms).
Proof.
  intros HY Hne Hp Hlen. unfold candidates. apply in_flat_map.
  exists (length (canon n Y)). split.
  - apply in_seq. split; [|lia].
    destruct Y as [|y Y']; [congruence|].
    assert (In y (canon n (y :: Y'))) by (apply canon_in; split; [apply HY|]; simpl; auto).
    destruct (canon n (y :: Y')); simpl in *; [tauto|lia].
  - apply filter_In. split; auto. apply in_combs. split; auto. apply sublist_filter.
Qed.

Lemma in_candidates pred n ms c :
  In c (candidates pred n ms) -> pred c = true /\ in_range n c /\ c <> [] /\ length c <= ms.
Proof.
  unfold candidates. intros H. apply in_flat_map in H as [k [Hk H]].
  apply filter_In in H as [H Hp]. apply in_combs in H as [Hs Hl]. apply in_seq in Hk.
  split; auto. split; [|split].
  - intros i Hi. apply sublist_in in Hs. apply Hs in Hi. apply in_seq in Hi. lia.
  - destruct c; simpl in *; [lia|congruence].
  - lia.
Qed.

Lemma nth_seq_id n X : in_range n X -> map (fun i => nth i (seq 0 n) 0) X = X.
Proof.
  intros H. rewrite <- (map_id X) at 2. apply map_ext_in. intros i Hi. now rewrite seq_nth by apply (H i Hi).
Qed.

Lemma find_sets_defined pred n rs max_size : n <> 0 -> rs <> [] ->
  exists out, find_sets pred (bipartite_of n rs) max_size = Some out.
Proof.
  intros Hn Hr. unfold find_sets.
  replace (split_ok (bipartite_of n rs)) with true; [eauto|].
  destruct n; [congruence|]. destruct rs; [congruence|]. reflexivity.
Qed.

Section Find.
Variables (n : nat) (rs : list rxn).
Variable pred : bgraph -> list nat -> list nat -> list nat -> bool.
Variable P : list nat -> Prop.
Let G := bipartite_of n rs.
Hypothesis pred_spec : forall X, in_range n X ->
  (pred G (species_nodes_sorted G) (g_reactions G) X = true <-> P X).
Hypothesis P_ext : forall X Y, same_set X Y -> P X -> P Y.
Hypothesis P_nonempty : forall X, P X -> X <> [].

Variable max_size : option nat.
Let ms := match max_size with None => n | Some k => k end.
Let cands := candidates (pred G (species_nodes_sorted G) (g_reactions G)) n ms.

(** the reported sets are the minimal candidates themselves: translating ranks to labels is the identity *)
Lemma find_sets_eq out : find_sets pred G max_size = Some out -> out = minimal_sets cands.
Proof.
  unfold find_sets. destruct (split_ok G); [|discriminate]. intros H. injection H as <-.
  assert (EL : species_labels G = seq 0 n) by apply labels_bipartite.
  rewrite !EL, seq_length. change (candidates _ n _) with cands.
  rewrite <- (map_id (minimal_sets cands)) at 2. apply map_ext_in. intros X HX. apply nth_seq_id.
  apply minimal_sets_sound in HX as [HX _]. apply in_candidates in HX. tauto.
Qed.

Lemma candidate_P c : In c cands -> in_range n c /\ P c /\ length c <= ms.
Proof.
  intros H. apply in_candidates in H as (Hp & Hr & _ & Hl). split; auto. split; auto. now apply pred_spec.
Qed.

Lemma canon_P_candidate Y : in_range n Y -> P Y -> length (canon n Y) <= ms -> In (canon n Y) cands.
Proof.
  intros HYr HY Hlen. pose proof (canon_same n Y HYr) as Hs.
  assert (HPc : P (canon n Y)) by (apply P_ext with Y; auto; destruct Hs; split; auto).
  apply canon_candidate; auto.
  apply pred_spec; auto. intros i Hi. apply canon_in in Hi. tauto.
Qed.

Lemma find_sets_spec out : find_sets pred G max_size = Some out ->
  (forall X, In X out -> in_range n X /\ length X <= ms /\ minimal_among (fun Y => in_range n Y /\ P Y) X) /\
  (forall Y, NoDup Y -> length Y <= ms -> minimal_among (fun Y => in_range n Y /\ P Y) Y ->
     exists X, In X out /\ same_set X Y) /\
  antichain out.
Proof.
  intros Hf. rewrite (find_sets_eq _ Hf). split; [|split; [|apply minimal_sets_antichain]].
  - (* minimal among the candidates, hence among all sets: a smaller set satisfying P has a canonical form, which is
       a candidate no longer than X *)
    intros X HX. apply minimal_sets_sound in HX as [HX Hmin].
    destruct (candidate_P X HX) as (Hr & HP & Hlen). split; auto. split; auto. split; auto.
    intros Y [HYr HY] Hi. destruct (canon_same n Y HYr) as [Hs1 Hs2].
    assert (Hc : In (canon n Y) cands).
    { apply canon_P_candidate; auto. apply Nat.le_trans with (length X); auto.
      apply NoDup_incl_length; [apply canon_nodup|]. eapply incl_tran; eauto. }
    eapply incl_tran; [apply (Hmin _ Hc)|exact Hs1]. eapply incl_tran; eauto.
  - intros Y Hnd Hlen [[HYr HY] Hmin]. destruct (canon_same n Y HYr) as [Hs1 Hs2].
    destruct (minimal_sets_complete cands (canon n Y)) as [X' [HX' [Hs1' Hs2']]].
    + apply canon_P_candidate; auto. rewrite canon_length; auto.
    + intros T HT Hi. destruct (candidate_P T HT) as (Hr & HP & _).
      eapply incl_tran; [exact Hs1|]. apply Hmin; auto. eapply incl_tran; eauto.
    + exists X'. split; auto. split; eapply incl_tran; eauto.
Qed.
End Find.

Lemma closed_set_ext a b rs X Y : same_set X Y -> closed_set a b rs X -> closed_set a b rs Y.
Proof.
  intros [H1 H2] [Hne H]. split; [eapply nonempty_incl; eauto|].
  intros r Hr [i [Hi Hp]]. destruct (H r Hr) as [i' [Hi' Hc]]; eauto.
Qed.

(** on the export of a network with species and reactions: the reported sets are exactly the inclusion-minimal sets
    closed from [a] to [b] — minimal among those of every size — with at most max_size members, each once *)
Lemma find_closed_spec a b n rs max_size : wf_net n rs -> n <> 0 -> rs <> [] ->
  exists out, find_sets (closed_indices a b) (bipartite_of n rs) max_size = Some out /\
    (forall X, In X out ->
       in_range n X /\ length X <= match max_size with None => n | Some k => k end /\
       minimal_among (fun Y => in_range n Y /\ closed_set a b rs Y) X) /\
    (forall Y, NoDup Y -> length Y <= match max_size with None => n | Some k => k end ->
       minimal_among (fun Y => in_range n Y /\ closed_set a b rs Y) Y ->
       exists X, In X out /\ same_set X Y) /\
    antichain out.
Proof.
  intros Hwf Hn Hrs. destruct (find_sets_defined (closed_indices a b) n rs max_size Hn Hrs) as [out Hout].
  exists out. split; [exact Hout|].
  apply (find_sets_spec n rs (closed_indices a b) (closed_set a b rs)); auto.
  - intros X HX. now apply closed_pred.
  - intros X Y. apply closed_set_ext.
  - intros X [HX _]. exact HX.
Qed.

(** * Non-vacuity: the design witness  A <-> B, B -> C *)

Definition witness_net : list rxn :=
  [([(0, 1%Z)], [(1, 1%Z)]); ([(1, 1%Z)], [(0, 1%Z)]); ([(1, 1%Z)], [(2, 1%Z)])].

Example witness_siphons : find_siphons (bipartite_of 3 witness_net) None = Some [[0; 1]].
Proof. vm_compute. reflexivity. Qed.
Example witness_traps : find_traps (bipartite_of 3 witness_net) None = Some [[2]].
Proof. vm_compute. reflexivity. Qed.
Example witness_wf : wf_net 3 witness_net.
Proof.
  intros r Hr ic Hic. simpl in Hr.
  repeat (destruct Hr as [<-|Hr]; [simpl in Hic; repeat (destruct Hic as [<-|Hic]; [simpl; lia|]); tauto|]).
  tauto.
Qed.
Example witness_siphon_def : siphon witness_net [0; 1] /\ ~ siphon witness_net [0].
Proof.
  split.
  - apply (siphon_pred 3 witness_net witness_wf [0; 1]).
    + intros i Hi. simpl in Hi. lia.
    + vm_compute. reflexivity.
  - intros H. apply (siphon_pred 3 witness_net witness_wf [0]) in H.
    + vm_compute in H. discriminate.
    + intros i Hi. simpl in Hi. lia.
Qed.
Example minimal_sets_example : minimal_sets [[0; 1]; [1]; [0; 1; 2]; [2; 0]; [1]] = [[1]; [2; 0]].
Proof. vm_compute. reflexivity. Qed.
