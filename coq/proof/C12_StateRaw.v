(** C12 -- the properties over histories stated on the graphs THE CALLER PASSES (raw attribute dictionaries), with the object's
    options: selection of the configured attributes, defaults, wildcard pruning.  Corollaries of the history theorems of
    proof/C12_State.v through [project_ci_iff] and [prune_ci_iff] ([pruned_ci_raw]): plain search, the ITS facade, component-wise
    mode, and the two VF2-order dependent modes with an accepted parameter. *)
From Coq Require Import List NArith ZArith Bool Arith Permutation.
From SK Require Import lib.LGraph model.C12_Model model.C12_Check model.C12_State
     proof.C12_Search proof.C12_Proof proof.C12_Prune proof.C12_Component proof.C12_Sorted proof.C12_Mol proof.C12_State.
Import ListNotations.
Local Open Scope nat_scope.

(** is atom [p] of the raw graph a wildcard for this object: data.get(element_key) == wildcard_element *)
Definition raw_wildcard (cfg : config) (g : rgraph) (p : N) : bool :=
  match label g p with
  | Some a => match LGraph.assoc (c_ekey cfg) a with Some e => N.eqb e (c_wc cfg) | None => false end
  | None => false
  end.

(** valid for the caller's graphs under this object's options: a common induced mapping on the configured attributes that maps
    no wildcard atom when pruning is on *)
Definition raw_valid (cfg : config) (ga gb : rgraph) (m : mapping) : Prop :=
  raw_common_induced cfg ga gb m /\
  (c_prune cfg = true -> forall p h, In (p, h) m -> raw_wildcard cfg ga p = false /\ raw_wildcard cfg gb h = false).

Lemma pruned_ci_raw cfg ga gb m : length (c_defs cfg) = length (c_names cfg) ->
  NoDup (node_ids ga) -> NoDup (node_ids gb) ->
  common_induced (node_match (c_defs cfg)) edge_match
    (prune_graph (c_prune cfg) (c_wc cfg) (project cfg ga)) (prune_graph (c_prune cfg) (c_wc cfg) (project cfg gb)) m <->
  raw_valid cfg ga gb m.
Proof.
  intros EL N1 N2. unfold raw_valid.
  destruct (c_prune cfg) eqn:Ep.
  - rewrite (prune_ci_iff _ _ (c_wc cfg) _ _ m (project_nodup cfg ga N1) (project_nodup cfg gb N2)), (project_ci_iff cfg ga gb m EL).
    split.
    + intros (C & W). split; [exact C|]. intros _ p h I. destruct (W p h I) as (W1 & W2).
      rewrite project_wc_node in W1, W2. split; assumption.
    + intros (C & W). split; [exact C|]. intros p h I. destruct (W eq_refl p h I) as (W1 & W2).
      rewrite !project_wc_node. split; assumption.
  - unfold prune_graph. rewrite (project_ci_iff cfg ga gb m EL). split; [intros C; split; [exact C|discriminate]|intros (C & _); exact C].
Qed.

Lemma raw_valid_invert cfg ga gb l : length (c_defs cfg) = length (c_names cfg) ->
  NoDup (node_ids ga) -> NoDup (node_ids gb) -> (forall m, In m l -> raw_valid cfg ga gb m) ->
  forall m, In m (map invert_mapping l) -> raw_valid cfg gb ga m.
Proof.
  intros EL N1 N2 V m Hm. apply in_map_iff in Hm. destruct Hm as (k & <- & Hk). apply (pruned_ci_raw cfg gb ga _ EL N2 N1).
  apply (ci_invert _ _ (node_match_sym (c_defs cfg)) edge_match_sym). now apply (pruned_ci_raw cfg ga gb k EL N1 N2), V.
Qed.

Lemma m_run_step_congr cfg o1 o2 : (forall st, m_step cfg st o1 = m_step cfg st o2) ->
  forall ops rds st, m_run cfg st (ops ++ o1 :: rds) = m_run cfg st (ops ++ o2 :: rds).
Proof.
  intros H ops rds. induction ops as [|o r IH]; intros st; simpl; [now rewrite H|apply IH].
Qed.

(** THE PROPERTY OVER HISTORIES ON THE CALLER'S GRAPHS: for an object built by the constructor ([mk_config a = Some cfg]),
    whatever calls it served before, after a call [o] that acts as find_common_subgraph(G1, G2, mcs) -- the call itself, or
    find_rc_mapping(..., component=False) on the sides it selects ([rc_is_find]) -- and any reads: every G1->G2 mapping is
    valid for (G1, G2), every G2->G1 mapping for (G2, G1), the two lists are position-wise inverse; in maximum mode all have
    the size last_size and NO valid mapping of the caller's graphs is larger; in all-sizes mode every non-empty valid mapping
    is returned *)
Theorem history_valid_raw a cfg st ops o g1 g2 mcs rds :
  mk_config a = Some cfg -> (forall st0, m_step cfg st0 o = m_step cfg st0 (MFind g1 g2 mcs)) ->
  NoDup (node_ids g1) -> NoDup (node_ids g2) -> forallb is_read rds = true ->
  let stf := m_run cfg st (ops ++ o :: rds) in
  exists l12 l21, m_get stf D12 = Some l12 /\ m_get stf D21 = Some l21 /\
    l21 = map invert_mapping l12 /\ l12 = map invert_mapping l21 /\
    (forall m, In m l12 -> raw_valid cfg g1 g2 m /\ 1 <= length m) /\
    (forall m, In m l21 -> raw_valid cfg g2 g1 m /\ 1 <= length m) /\
    (mcs = true -> (forall m, In m l12 -> length m = s_last stf) /\
                   (forall m, raw_valid cfg g1 g2 m -> length m <= s_last stf)) /\
    (mcs = false -> forall m, raw_valid cfg g1 g2 m -> 1 <= length m -> exists m', In m' l12 /\ Permutation m m').
Proof.
  intros Ea Eo N1 N2 Hr. rewrite (m_run_step_congr cfg o (MFind g1 g2 mcs) Eo ops rds st). intros stf.
  pose proof (mk_config_lengths a cfg Ea) as EL.
  destruct (history_find_valid cfg st ops g1 g2 mcs rds N1 N2 Hr)
    as (l12 & l21 & lp & E12 & E21 & _ & _ & I1 & I2 & _ & V12 & V21 & Hmax & Hall).
  exists l12, l21. fold stf in E12, E21, Hmax. split; [exact E12|split; [exact E21|split; [exact I1|split; [exact I2|]]]].
  split; [|split; [|split]].
  - intros m Hm. destruct (V12 m Hm) as (C & L). split; [now apply (pruned_ci_raw cfg g1 g2 m EL N1 N2)|exact L].
  - intros m Hm. destruct (V21 m Hm) as (C & L). split; [now apply (pruned_ci_raw cfg g2 g1 m EL N2 N1)|exact L].
  - intros Em. destruct (Hmax Em) as (M1 & M2 & _). split; [exact M1|].
    intros m Hv. apply M2. now apply (pruned_ci_raw cfg g1 g2 m EL N1 N2).
  - intros Em m Hv L. apply (Hall Em m); [now apply (pruned_ci_raw cfg g1 g2 m EL N1 N2)|exact L].
Qed.

(** every bond of the raw graph joins two of its atoms (guaranteed by networkx) *)
Definition raw_wfe (g : rgraph) : Prop := forall a b x, In (a, b, x) (gedges g) -> In a (node_ids g) /\ In b (node_ids g).

Lemma project_wfe cfg g : raw_wfe g -> wfe (project cfg g).
Proof.
  intros H a b x I. unfold project in I. simpl in I. apply in_map_iff in I. destruct I as ([[a' b'] x'] & E & I).
  simpl in E. inversion E; subst. rewrite project_ids. exact (H a b x' I).
Qed.

(** find_rc_mapping(..., component=True) after any history stores ONE mapping, reported G1 -> G2, that is valid for the two sides
    the facade selects -- injective and bond-preserving also ACROSS components --, and the other direction is its inverse *)
Theorem history_component_valid_raw a cfg st ops x sd mcs ga gb rds :
  mk_config a = Some cfg -> pick_sides x sd = Some (ga, gb) ->
  NoDup (node_ids ga) -> NoDup (node_ids gb) -> raw_wfe ga -> raw_wfe gb -> forallb is_read rds = true ->
  let stf := m_run cfg st (ops ++ MRc x sd mcs true :: rds) in
  exists m, m_get stf D12 = Some [m] /\ m_get stf D21 = Some [invert_mapping m] /\ m_get stf DP2H = Some [m] /\
    s_flag stf = Some true /\ s_last stf = length m /\
    raw_valid cfg ga gb m /\ raw_valid cfg gb ga (invert_mapping m).
Proof.
  intros Ea Ep N1 N2 W1 W2 Hr stf. pose proof (mk_config_lengths a cfg Ea) as EL.
  destruct (history_component_valid cfg st ops x sd mcs ga gb rds Ep N1 N2 (project_wfe cfg ga W1) (project_wfe cfg gb W2) Hr)
    as (m & E12 & E21 & Ep2 & Ef & El & C1 & C2).
  exists m. fold stf in E12, E21, Ep2, Ef, El.
  split; [exact E12|split; [exact E21|split; [exact Ep2|split; [exact Ef|split; [exact El|split]]]]].
  - now apply (pruned_ci_raw cfg ga gb m EL N1 N2).
  - now apply (pruned_ci_raw cfg gb ga (invert_mapping m) EL N2 N1).
Qed.

(** with an ACCEPTED parameter (VF2's first mapping per host node set under prune_automorphisms; VF2's isomorphisms inside the
    matched component pairs under mcs_mol), after any history the G1 -> G2 answers are valid for (G1, G2) and the G2 -> G1
    answers are their inverses, valid for (G2, G1) *)
Theorem history_auto_valid_raw a cfg st ops g1 g2 mcs choices rds kept :
  mk_config a = Some cfg -> NoDup (node_ids g1) -> NoDup (node_ids g2) -> forallb is_read rds = true ->
  apply_choices (r_maps (find_common_subgraph (c_defs cfg) (c_prune cfg) (c_wc cfg) (project cfg g1) (project cfg g2) mcs)) choices
    = Some kept ->
  let stf := m_run cfg st (ops ++ MFindAuto g1 g2 mcs choices :: rds) in
  exists l12, m_get stf D12 = Some l12 /\ m_get stf D21 = Some (map invert_mapping l12) /\ length l12 = length kept /\
    (forall m, In m l12 -> raw_valid cfg g1 g2 m) /\
    (forall m, In m (map invert_mapping l12) -> raw_valid cfg g2 g1 m).
Proof.
  intros Ea N1 N2 Hr E stf. pose proof (mk_config_lengths a cfg Ea) as EL.
  unfold stf. rewrite (history_auto cfg st ops g1 g2 mcs choices rds kept Hr E).
  destruct (prune_auto_choices_valid (c_defs cfg) (c_prune cfg) (c_wc cfg) _ _ mcs choices kept
              (project_nodup cfg g1 N1) (project_nodup cfg g2 N2) E) as (V & _).
  set (r := find_common_subgraph (c_defs cfg) (c_prune cfg) (c_wc cfg) (project cfg g1) (project cfg g2) mcs) in *.
  unfold m_get. cbn [s_flag s_maps]. destruct (r_pattern_is_g1 r).
  - assert (V12 : forall m, In m kept -> raw_valid cfg g1 g2 m).
    { intros m Hm. apply (pruned_ci_raw cfg g1 g2 m EL N1 N2). now apply V. }
    exists kept. split; [reflexivity|split; [reflexivity|split; [reflexivity|split; [exact V12|]]]].
    exact (raw_valid_invert cfg g1 g2 kept EL N1 N2 V12).
  - assert (V21 : forall m, In m kept -> raw_valid cfg g2 g1 m).
    { intros m Hm. apply (pruned_ci_raw cfg g2 g1 m EL N2 N1). now apply V. }
    exists (map invert_mapping kept). rewrite map_invert_involutive.
    split; [reflexivity|split; [reflexivity|split; [apply map_length|split; [|exact V21]]]].
    exact (raw_valid_invert cfg g2 g1 kept EL N2 N1 V21).
Qed.

(** ... under mcs_mol there is exactly one mapping, of the size of the parameter and made of its pairs *)
Theorem history_mol_valid_raw a cfg st ops g1 g2 choice rds r :
  mk_config a = Some cfg -> NoDup (node_ids g1) -> NoDup (node_ids g2) -> raw_wfe g1 -> raw_wfe g2 -> forallb is_read rds = true ->
  find_mcs_mol_with (c_defs cfg) (c_prune cfg) (c_wc cfg) (project cfg g1) (project cfg g2) choice = Some r ->
  let stf := m_run cfg st (ops ++ MFindMol g1 g2 choice :: rds) in
  exists m, m_get stf D12 = Some [m] /\ m_get stf D21 = Some [invert_mapping m] /\ s_flag stf = Some true /\ s_last stf = length m /\
    length m = length choice /\ (forall ph, In ph m -> In ph choice) /\
    raw_valid cfg g1 g2 m /\ raw_valid cfg g2 g1 (invert_mapping m).
Proof.
  intros Ea N1 N2 W1 W2 Hr E stf. pose proof (mk_config_lengths a cfg Ea) as EL.
  unfold stf. rewrite (history_mol cfg st ops g1 g2 choice rds r Hr E).
  destruct (mol_choice_valid (c_defs cfg) (c_prune cfg) (c_wc cfg) _ _ choice r (project_nodup cfg g1 N1) (project_nodup cfg g2 N2)
              (project_wfe cfg g1 W1) (project_wfe cfg g2 W2) E)
    as (m & Em & El & Ef & _ & Hsub & Hlen & C1 & C2).
  exists m. unfold m_get, state_of. cbn [s_flag s_maps s_last]. rewrite Em, Ef, El. simpl.
  split; [reflexivity|split; [reflexivity|split; [reflexivity|split; [reflexivity|split; [exact Hlen|split; [exact Hsub|split]]]]]].
  - now apply (pruned_ci_raw cfg g1 g2 m EL N1 N2).
  - now apply (pruned_ci_raw cfg g2 g1 _ EL N2 N1).
Qed.

Module Example_raw.
(** pruning on, wildcard "*" (code 0) under the element key: O=C-* against *-C=O-... the wildcard atoms are never mapped *)
Definition cfgp : config := {| c_names := [0%N]; c_defs := [0%N]; c_enames := [0%N]; c_prune := true; c_auto := false; c_wc := 0%N; c_ekey := 0%N |}.
Definition gW : rgraph := LG [(1, [(0, 1)]); (2, [(0, 0)])]%N [(1, 2, [(0%N, ENum 2)])]%N.
Definition gV : rgraph := LG [(5, [(0, 0)]); (6, [(0, 1)])]%N [(5, 6, [(0%N, ENum 2)])]%N.
Example pruned_history : m_get (m_run cfgp s_init [MFind gW gV true]) D12 = Some [[(1, 6)]%N].
Proof. vm_compute. reflexivity. Qed.
Example raw_valid_example : raw_valid cfgp gW gV [(1, 6)%N] /\ ~ raw_valid cfgp gW gV [(2, 5)%N].
Proof.
  split.
  - destruct (history_valid_raw {| a_node_attrs := None; a_node_defaults := None; a_edge_attrs := None; a_prune_wc := true;
                                   a_prune_auto := false; a_wildcard := 0%N; a_element_key := 0%N |} cfgp s_init [] (MFind gW gV true) gW gV true [])
      as (l12 & l21 & E12 & _ & _ & _ & V & _).
    + reflexivity.
    + reflexivity.
    + now apply nodupb_spec.
    + now apply nodupb_spec.
    + reflexivity.
    + vm_compute in E12. injection E12 as <-. exact (proj1 (V _ (or_introl eq_refl))).
  - intros (_ & W). destruct (W eq_refl 2%N 5%N (or_introl eq_refl)) as (W1 & _). vm_compute in W1. discriminate.
Qed.
End Example_raw.
