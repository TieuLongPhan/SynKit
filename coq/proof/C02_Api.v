(** C02 — proofs about the calling conventions of RadiusExpand (model/C02_Api.v). *)
From Coq Require Import List NArith ZArith Bool Lia.
From SK Require Import lib.LGraph lib.Reach lib.C01_GraphLemmas model.C01_Model model.C02_Model model.C02_Store
                       model.C02_Api proof.C02_Proof proof.C02_Ball proof.C02_Opts proof.C02_Wfb.
Import ListNotations.
Local Open Scope Z_scope.

(** * insertion-ordered dict assignment *)
Lemma dict_set_get k v d : assoc k (dict_set k v d) = Some v.
Proof.
  induction d as [|[k' v'] r IH]; simpl; [rewrite N.eqb_refl; reflexivity|].
  destruct (N.eqb k' k) eqn:E; simpl; [rewrite N.eqb_refl; reflexivity|].
  rewrite N.eqb_sym, E. exact IH.
Qed.

Lemma dict_set_other k v d k' : k' <> k -> assoc k' (dict_set k v d) = assoc k' d.
Proof.
  intros Hne. induction d as [|[k0 v0] r IH]; simpl.
  - destruct (N.eqb_spec k' k); [congruence|reflexivity].
  - destruct (N.eqb_spec k0 k) as [->|Hk]; simpl.
    + destruct (N.eqb_spec k' k); [congruence|reflexivity].
    + destruct (N.eqb k' k0); [reflexivity|exact IH].
Qed.

Lemma dict_set_keys k v d :
  map fst (dict_set k v d) = if existsb (N.eqb k) (map fst d) then map fst d else map fst d ++ [k].
Proof.
  induction d as [|[k0 v0] r IH]; simpl; [reflexivity|].
  destruct (N.eqb_spec k0 k) as [->|Hk]; simpl.
  - rewrite N.eqb_refl. reflexivity.
  - destruct (N.eqb_spec k k0); [congruence|]. simpl. rewrite IH. destruct (existsb (N.eqb k) (map fst r)); reflexivity.
Qed.

Lemma dict_set_nodup k v d : NoDup (map fst d) -> NoDup (map fst (dict_set k v d)).
Proof.
  intros Hn. rewrite dict_set_keys. destruct (existsb (N.eqb k) (map fst d)) eqn:E; [exact Hn|].
  apply nodup_snoc; [exact Hn|]. intros I. assert (existsb (N.eqb k) (map fst d) = true) as X; [|congruence].
  apply existsb_exists. exists k. split; [exact I|apply N.eqb_refl].
Qed.

(** * context_extraction on a reaction dict *)
Theorem context_extraction_d_spec (d : dict) (ik ck : N) (k : Z) :
  match assoc ik d with
  | Some (DG g) =>
      exists r, context_extraction_d d ik ck k = Some r /\
        assoc ck r = Some (DG (extract_k_z g k)) /\
        (forall k', k' <> ck -> assoc k' r = assoc k' d) /\
        map fst r = (if existsb (N.eqb ck) (map fst d) then map fst d else map fst d ++ [ck]) /\
        (NoDup (map fst d) -> NoDup (map fst r))
  | _ => context_extraction_d d ik ck k = None
  end.
Proof.
  unfold context_extraction_d. destruct (assoc ik d) as [[g|z]|]; try reflexivity.
  eexists. split; [reflexivity|]. split; [apply dict_set_get|]. split; [intros k'; apply dict_set_other|].
  split; [apply dict_set_keys|apply dict_set_nodup].
Qed.

(** context_key = its_key: the ITS entry itself is overwritten by its context (the code does not guard against it) *)
Corollary context_extraction_d_same_key (d : dict) (ik : N) (k : Z) g : assoc ik d = Some (DG g) ->
  exists r, context_extraction_d d ik ik k = Some r /\ assoc ik r = Some (DG (extract_k_z g k)) /\ map fst r = map fst d.
Proof.
  intros E. pose proof (context_extraction_d_spec d ik ik k) as H. rewrite E in H. destruct H as (r & R & A & _ & Ks & _).
  exists r. split; [exact R|]. split; [exact A|]. rewrite Ks.
  assert (existsb (N.eqb ik) (map fst d) = true) as X; [|rewrite X; reflexivity].
  apply existsb_exists. exists ik. split; [eapply assoc_some_key; eauto|apply N.eqb_refl].
Qed.

(** * the list version: all-or-error, element-wise, order and length preserved *)
Theorem parallel_d_spec (ds : list dict) (ik ck : N) (k : Z) :
  (forall rs, parallel_d ds ik ck k = Some rs ->
     length rs = length ds /\
     forall i, nth_error rs i = match nth_error ds i with Some d => context_extraction_d d ik ck k | None => None end) /\
  (parallel_d ds ik ck k = None <-> exists d, In d ds /\ context_extraction_d d ik ck k = None).
Proof.
  induction ds as [|d r [IH1 IH2]]; simpl.
  - split; [intros rs [= <-]; split; [reflexivity|intros [|i]; reflexivity]|].
    split; [discriminate|intros (d & [] & _)].
  - destruct (context_extraction_d d ik ck k) as [x|] eqn:E.
    + destruct (parallel_d r ik ck k) as [xs|] eqn:P.
      * split.
        -- intros rs [= <-]. destruct (IH1 xs eq_refl) as [L Nth]. split; [simpl; congruence|].
           intros [|i]; simpl; [symmetry; exact E|apply Nth].
        -- split; [discriminate|]. intros (d' & [<-|I] & C); [congruence|].
           assert (Some xs = None) as X by (apply IH2; exists d'; auto). discriminate.
      * split; [discriminate|]. split; [|reflexivity]. intros _. destruct (proj1 IH2 eq_refl) as (d' & I & C). exists d'. auto.
    + split; [discriminate|]. split; [|reflexivity]. intros _. exists d. auto.
Qed.

(** * find_nearest_neighbors called directly *)
Theorem fnn_spec (g : its) (seeds : list N) (k : Z) :
  (k <= 0 -> exists l, fnn g seeds k = Some l /\ forall n, In n l <-> In n seeds) /\
  (0 < k -> (forall s, In s seeds -> In s (node_ids g)) ->
     exists l, fnn g seeds k = Some l /\ forall n, In n l <-> dist_le g seeds (Z.to_nat k) n) /\
  (0 < k -> (exists s, In s seeds /\ ~ In s (node_ids g)) -> fnn g seeds k = None).
Proof.
  unfold fnn. split; [|split].
  - intros Hk. destruct (Z.leb_spec k 0); [|lia]. eexists. split; [reflexivity|]. intros n. rewrite add_all_in. simpl. tauto.
  - intros Hk Hs. destruct (Z.leb_spec k 0); [lia|].
    assert (forallb (has_node g) seeds = true) as F.
    { apply forallb_forall. intros s I. unfold has_node, label. destruct (assoc_is_some s (gnodes g) (Hs s I)) as (a & ->). reflexivity. }
    rewrite F. eexists. split; [reflexivity|]. intros n. apply knn_spec.
  - intros Hk (s & I & Hn). destruct (Z.leb_spec k 0); [lia|].
    destruct (forallb (has_node g) seeds) eqn:F; [|reflexivity]. exfalso. apply Hn.
    rewrite forallb_forall in F. specialize (F s I). unfold has_node in F. destruct (label g s) as [a|] eqn:L; [|discriminate].
    eapply label_some_node; eauto.
Qed.

(** * extract_k(its, n_knn) for n_knn < -1: range(n_knn) is empty, the context is the induced subgraph of the ITS on the centre
    atoms — all ITS bonds between centre atoms with their ITS attributes, atoms with all their labels (NOT the centre itself) *)
Theorem extract_k_z_negative (g : its) k : wf g -> k < -1 ->
  (forall n, In n (node_ids (extract_k_z g k)) <-> In n (node_ids (get_rc g))) /\
  (forall n a, label (extract_k_z g k) n = Some a <-> label g n = Some a /\ In n (node_ids (get_rc g))) /\
  (forall u v e, adj (extract_k_z g k) u v = Some e <->
                 adj g u v = Some e /\ In u (node_ids (get_rc g)) /\ In v (node_ids (get_rc g))).
Proof.
  intros W Hk. unfold extract_k_z. destruct (Z.eqb_spec k 0) as [?|_]; [lia|]. destruct (Z.eqb_spec k (-1)) as [?|_]; [lia|].
  assert (Z.to_nat k = O) as -> by lia. set (rcn := node_ids (get_rc g)).
  (* the radius-0 ball is the start list *)
  destruct (ball_sub_spec g rcn 0 W (rc_keys_in g)) as (HN & HL & HA).
  assert (forall n, In n rcn <-> dist_le_g g rcn 0 n) as D0.
  { intros n. split; [intros I; exists n, O; repeat split; [exact I|lia|constructor]|].
    intros (s & m & Is & Hm & Wk). assert (m = O) as -> by lia. inversion Wk; subst. exact Is. }
  split; [|split]; intros; rewrite !D0; [apply HN|apply HL|apply HA].
Qed.

(** * get_rc pass by pass *)
Theorem rc_passes_compose K m (g : xits) :
  get_rc_x K false m g = LG (fst (rc_pass2 K m g)) (snd (rc_pass2 K m g)) /\
  get_rc_x K true m g = LG (fst (rc_pass4 K m g)) (snd (rc_pass4 K m g)).
Proof. split; reflexivity. Qed.

(** after _add_changed_bonds: exactly the included bonds with [out_edge], exactly their endpoints with the selected labels *)
Theorem rc_pass1_spec K m (g : xits) : wf g ->
  (forall u v y, find_edge u v (snd (rc_pass1 K m g)) = Some y <->
                 exists x, adj g u v = Some x /\ include_x m x = true /\ y = out_edge x) /\
  (forall n b, assoc n (fst (rc_pass1 K m g)) = Some b <->
               exists a, label g n = Some a /\ b = sel_attr K a /\
                         exists u v x, In (u, v, x) (gedges g) /\ include_x m x = true /\ (n = u \/ n = v)).
Proof.
  intros W. unfold rc_pass1.
  rewrite (fold_changed_g_snd (sel_attr K) m g), (fold_changed_g_fst (sel_attr K) m g).
  exact (pass_spec g (sel_attr K) (include_x m) out_edge W).
Qed.

(** every later pass only ADDS: an atom keeps the labels it was inserted with, a bond keeps its attributes (first wins) *)
Theorem rc_passes_grow K m (g : xits) :
  (forall n b, assoc n (fst (rc_pass1 K m g)) = Some b -> assoc n (fst (rc_pass2 K m g)) = Some b) /\
  (forall u v y, find_edge u v (snd (rc_pass1 K m g)) = Some y -> find_edge u v (snd (rc_pass2 K m g)) = Some y) /\
  (NoDup (node_ids g) -> forall n b, assoc n (fst (rc_pass2 K m g)) = Some b -> assoc n (fst (rc_pass3 K m g)) = Some b) /\
  (forall u v y, find_edge u v (snd (rc_pass3 K m g)) = Some y -> find_edge u v (snd (rc_pass4 K m g)) = Some y).
Proof.
  unfold rc_pass4, rc_pass3, rc_pass2. split; [|split; [|split]].
  - intros n b E. rewrite (fold_hh_g_fst (sel_attr_hh K) ish_x g), assoc_ins_all, E. reflexivity.
  - intros u v y E. rewrite (fold_hh_g_snd (sel_attr_hh K) ish_x g), find_add_absent, E. reflexivity.
  - intros Hnd n b E. simpl. rewrite (assoc_fold_charge_g (sel_attr K) charge_changed (gnodes g) Hnd), E. reflexivity.
  - intros u v y E. simpl in *. rewrite (fold_reconnect_g (A := xnode)), find_add_absent, E. reflexivity.
Qed.

(** non-vacuity: ex_its (proof/C02_Proof.v) in a dict with keys ITS=10, K=11, id=12; a triangle with two changed bonds *)
Definition ex_dict : dict := [(12%N, DZ 7); (10%N, DG ex_its)].
Definition ex_tri : its :=
  LG [(1%N, ex_n 70%N); (2%N, ex_n 70%N); (3%N, ex_n 70%N)] [(1%N, 2%N, IE 2 0 2); (2%N, 3%N, IE 0 2 (-2)); (1%N, 3%N, IE 2 2 0)].
Lemma ex_tri_wf : wf ex_tri.
Proof. apply wfb_sound. reflexivity. Qed.
Example C02_api_nonvacuous :
  (option_map (map fst) (context_extraction_d ex_dict 10%N 11%N 1) = Some [12%N; 10%N; 11%N] /\
   option_map (map fst) (context_extraction_d ex_dict 10%N 12%N 1) = Some [12%N; 10%N] /\
   context_extraction_d ex_dict 11%N 11%N 1 = None /\ context_extraction_d ex_dict 12%N 11%N 1 = None) /\
  (option_map (@length dict) (parallel_d [ex_dict; ex_dict] 10%N 11%N 2) = Some 2%nat /\
   parallel_d [ex_dict; [(12%N, DZ 7)]] 10%N 11%N 2 = None) /\
  (fnn ex_its [1%N; 99%N] 1 = None /\ fnn ex_its [1%N; 99%N] 0 <> None /\ fnn ex_its [1%N] 1 <> None) /\
  wf ex_tri /\ length (gedges (extract_k_z ex_tri (-2))) = 3%nat /\ length (gedges (get_rc ex_tri)) = 2%nat.
Proof.
  split; [vm_compute; repeat split; reflexivity|]. split; [vm_compute; split; reflexivity|].
  split; [vm_compute; repeat split; congruence|]. split; [exact ex_tri_wf|]. vm_compute. split; reflexivity.
Qed.

Definition ex_steps : xits := emb ex_its.
Example C02_steps_nonvacuous :
  length (fst (rc_pass1 K_default false ex_steps)) = 4%nat /\ length (fst (rc_pass2 K_default false ex_steps)) = 5%nat /\
  length (snd (rc_pass1 K_default false ex_steps)) = 4%nat /\ length (snd (rc_pass2 K_default false ex_steps)) = 5%nat /\
  wf ex_steps /\ rc_pass4 K_default false ex_steps = rc_pass2 K_default false ex_steps.
Proof.
  do 4 (split; [vm_compute; reflexivity|]). split; [|vm_compute; reflexivity].
  apply (wf_gmap xn_of (fun e : iedge => (e, @None bool))). exact ex_its_wf.
Qed.

(** * _add_bond_order_changes: exactly the bonds whose two orders differ, their endpoints with the selected labels; on an ITS whose
    standard_order is the order difference these are the bonds of get_rc's first pass (keep_mtg = False) *)
Lemma abo_fst K g L : forall st,
  fst (fold_left (abo_step K g) L st) =
  ins_all g (sel_attr K) (ends (filter (fun e : N * N * xedge => negb (e_G (fst (snd e)) =? e_H (fst (snd e)))) L)) (fst st).
Proof.
  induction L as [|[[u v] x] L IH]; intros st; simpl; [reflexivity|]. rewrite IH.
  destruct (e_G (fst x) =? e_H (fst x)); reflexivity.
Qed.
Lemma abo_snd K g L : forall st,
  snd (fold_left (abo_step K g) L st) =
  snd st ++ map (oute out_edge_rec) (filter (fun e : N * N * xedge => negb (e_G (fst (snd e)) =? e_H (fst (snd e)))) L).
Proof.
  induction L as [|[[u v] x] L IH]; intros st; simpl; [rewrite app_nil_r; reflexivity|]. rewrite IH.
  destruct (e_G (fst x) =? e_H (fst x)); simpl; [|rewrite <- app_assoc]; reflexivity.
Qed.

Theorem add_bond_order_changes_spec K (g : xits) : wf g ->
  (forall u v y, find_edge u v (snd (add_bond_order_changes K g)) = Some y <->
                 exists x, adj g u v = Some x /\ e_G (fst x) <> e_H (fst x) /\ y = out_edge_rec x) /\
  (forall n b, assoc n (fst (add_bond_order_changes K g)) = Some b <->
               exists a, label g n = Some a /\ b = sel_attr K a /\
                         exists u v x, In (u, v, x) (gedges g) /\ e_G (fst x) <> e_H (fst x) /\ (n = u \/ n = v)).
Proof.
  intros W. unfold add_bond_order_changes. rewrite abo_snd, abo_fst.
  destruct (pass_spec g (sel_attr K) (fun x : xedge => negb (e_G (fst x) =? e_H (fst x))) out_edge_rec W) as [E N].
  assert (forall x : xedge, negb (e_G (fst x) =? e_H (fst x)) = true <-> e_G (fst x) <> e_H (fst x)) as Pn.
  { intros x. rewrite negb_true_iff, Z.eqb_neq. tauto. }
  split.
  - intros u v y. rewrite (E u v y). split; intros (x & Ad & P & Hy); exists x; rewrite Pn in *; auto.
  - intros n b. rewrite (N n b). split; intros (a & La & Hb & u & v & x & I & P & Hn); exists a; (split; [exact La|]); (split; [exact Hb|]);
      exists u, v, x; rewrite Pn in *; auto.
Qed.

(** on graphs whose standard_order is zero exactly when the two orders are equal (every ITSGraph output without ignore_aromaticity)
    the helper selects the bonds of get_rc's first pass *)
Corollary add_bond_order_changes_is_pass1 K (g : xits) : wf g ->
  (forall u v x, In (u, v, x) (gedges g) -> (e_std (fst x) = 0 <-> e_G (fst x) = e_H (fst x))) ->
  forall u v, find_edge u v (snd (add_bond_order_changes K g)) <> None <-> find_edge u v (snd (rc_pass1 K false g)) <> None.
Proof.
  intros W Hs u v. destruct (add_bond_order_changes_spec K g W) as [A _]. destruct (rc_pass1_spec K false g W) as [B _].
  assert (forall x, adj g u v = Some x -> (e_G (fst x) <> e_H (fst x) <-> include_x false x = true)) as Eq.
  { intros x Ad. apply (wf_adj_iff W) in Ad. assert (e_std (fst x) = 0 <-> e_G (fst x) = e_H (fst x)) as H by (destruct Ad as [Ad|Ad]; eapply Hs; eauto).
    unfold include_x, changed. simpl. rewrite orb_false_r, negb_true_iff, Z.eqb_neq. tauto. }
  split; intros F.
  - destruct (find_edge u v (snd (add_bond_order_changes K g))) as [y|] eqn:E; [|congruence]. apply A in E. destruct E as (x & Ad & Hd & _).
    assert (find_edge u v (snd (rc_pass1 K false g)) = Some (out_edge x)) as ->; [|discriminate]. apply B. exists x. split; [exact Ad|]. split; [apply (Eq x Ad); exact Hd|reflexivity].
  - destruct (find_edge u v (snd (rc_pass1 K false g))) as [y|] eqn:E; [|congruence]. apply B in E. destruct E as (x & Ad & Hi & _).
    assert (find_edge u v (snd (add_bond_order_changes K g)) = Some (out_edge_rec x)) as ->; [|discriminate]. apply A. exists x. split; [exact Ad|]. split; [apply (Eq x Ad); exact Hi|reflexivity].
Qed.

Example C02_abo_nonvacuous :
  length (snd (add_bond_order_changes K_default ex_steps)) = 4%nat /\ length (fst (add_bond_order_changes K_default ex_steps)) = 4%nat.
Proof. vm_compute. split; reflexivity. Qed.
