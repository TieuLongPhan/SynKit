(** C04 — strategies comp / bt through the reactor OBJECT in implicit mode: from "some kept mapping glues to the reaction"
    (proof/C04_CompBt.v) to "its_list of a fresh reactor contains it" (no _explicit_h stage in implicit mode). *)
From Coq Require Import List NArith ZArith Bool.
From SK Require Import lib.LGraph model.C06_Model lib.C06_Spec proof.C06_Comp model.C03_Model model.C04_Model model.C04_Reactor proof.C04_Glue
                       proof.C04_Proof proof.C04_Chain proof.C04_DefaultChain proof.C04_CompBt.
Import ListNotations.
Local Open Scope Z_scope.

(** * own templates, implicit mode, at the level of the reactor object, for ANY embed_threshold [thr] (None = the default 5000) that
    is not below C06's bound *)
Section OwnImplicitAt.
  Variable enum : list N -> list N -> list C06_Model.mapping.
  Variable rematch : nat -> hostg -> molg -> list C03_Model.mapping.
  Variables (core invert : bool) (G H : hostg) (thr : option N).
  Hypothesis W : pair_wfb G H = true.
  Hypothesis NH : no_explicit_H G = true.
  Hypothesis CC : core = true -> centre_carries (its_construct G H) = true.
  Let A := if invert then H else G.
  Let B := if invert then G else H.
  Let tpl := template core invert G H.
  Let l := dec_side iG eG tpl.
  Let r := dec_side iH eH tpl.
  Hypothesis Hnn : forallb (fun p => 0 <=? m_hc (snd p)) (gnodes l) = true.
  Hypothesis Hor : oracle_ok enum (tr_host A) (tr_pat l).

  Let D : describes A B tpl := template_describes core invert G H W NH CC.
  Let PW : pair_wf A B := pair_AB core invert G H W.
  Let LO : left_of tpl l := own_left_of tpl (d_wf _ _ _ D).
  Let Hf : has_XH l = false := own_no_XH core invert G H W NH.
  Let GH : gwf (tr_host A) := own_gwf_host core invert G H W NH CC.
  Let GP : gwf (tr_pat l) := own_gwf_pat core invert G H W NH CC.

  Theorem own_comp_implicit_at :
    (0 <? length (comps (tr_pat l)))%nat && (length (comps (tr_pat l)) <? length (comps (tr_host A)))%nat = false ->
    ((length (comps (tr_host A)) <? length (comps (tr_pat l)))%nat = true \/ id_separatingb (tr_host A) (tr_pat l) = true) ->
    (comp_bound enum true (tr_host A) (tr_pat l) <= dflt DEFAULT_THRESHOLD thr)%N ->
    exists gs Tt, fst (read_its (api_engine enum) rematch (own_opts invert false (SMember 1%N) thr false) A (tpl, l, r) fresh) = Some gs /\
                  In Tt gs /\ regen_exact Tt A B = true.
  Proof.
    intros NG Hc Hb.
    destruct (comp_regenerates_at enum A B tpl l r PW D LO Hf Hnn GH GP Hor (own_opts invert false (SMember 1%N) thr false) NG) as (ms & y & Tt & Em & _ & Iy & Eg & Rg);
      [destruct Hc as [Hc|Hc]; [left; exact Hc|right; exact (own_sep core invert G H W NH CC Hc)]|reflexivity|reflexivity|exact Hb|].
    destruct (its_of_mappings (api_engine enum) rematch (own_opts invert false (SMember 1%N) thr false) A tpl l r ms y Tt eq_refl Hf Em Iy Eg) as (gs & Egs & It).
    exists gs, Tt. auto.
  Qed.
  Theorem own_bt_implicit_at :
    ((0 <? length (comps (tr_pat l)))%nat && (length (comps (tr_pat l)) <? length (comps (tr_host A)))%nat = true \/
     (length (comps (tr_host A)) <? length (comps (tr_pat l)))%nat = true \/ id_separatingb (tr_host A) (tr_pat l) = true) ->
    (N.max (comp_bound enum true (tr_host A) (tr_pat l)) (lenN (enum (node_ids (tr_host A)) (node_ids (tr_pat l)))) <= dflt DEFAULT_THRESHOLD thr)%N ->
    exists gs Tt, fst (read_its (api_engine enum) rematch (own_opts invert false (SMember 2%N) thr false) A (tpl, l, r) fresh) = Some gs /\
                  In Tt gs /\ regen_exact Tt A B = true.
  Proof.
    intros Hc Hb.
    destruct (bt_regenerates_at enum A B tpl l r PW D LO Hf Hnn GH GP Hor (own_opts invert false (SMember 2%N) thr false)) as (ms & y & Tt & Em & _ & Iy & Eg & Rg);
      [destruct Hc as [Hc|[Hc|Hc]]; [left; exact Hc|right; left; exact Hc|right; right; exact (own_sep core invert G H W NH CC Hc)]|reflexivity|reflexivity|exact Hb|].
    destruct (its_of_mappings (api_engine enum) rematch (own_opts invert false (SMember 2%N) thr false) A tpl l r ms y Tt eq_refl Hf Em Iy Eg) as (gs & Egs & It).
    exists gs, Tt. auto.
  Qed.
End OwnImplicitAt.

(** hence from some threshold on *)
Section OwnImplicitObject.
  Variable enum : list N -> list N -> list C06_Model.mapping.
  Variable rematch : nat -> hostg -> molg -> list C03_Model.mapping.
  Variables (core invert : bool) (G H : hostg).
  Hypothesis W : pair_wfb G H = true.
  Hypothesis NH : no_explicit_H G = true.
  Hypothesis CC : core = true -> centre_carries (its_construct G H) = true.
  Let A := if invert then H else G.
  Let B := if invert then G else H.
  Let tpl := template core invert G H.
  Let l := dec_side iG eG tpl.
  Let r := dec_side iH eH tpl.

  (** strategy code [s] = 1 (comp) or 2 (bt), threshold [T]: the reactor for the own template in implicit mode *)
  Definition own_reactor_opts (s T : N) : ropts := own_opts invert false (SMember s) (Some T) false.

  Theorem own_comp_implicit_object :
    forallb (fun p => 0 <=? m_hc (snd p)) (gnodes l) = true ->
    oracle_ok enum (tr_host A) (tr_pat l) ->
    (0 <? length (comps (tr_pat l)))%nat && (length (comps (tr_pat l)) <? length (comps (tr_host A)))%nat = false ->
    ((length (comps (tr_host A)) <? length (comps (tr_pat l)))%nat = true \/ id_separatingb (tr_host A) (tr_pat l) = true) ->
    exists T0 : N, forall T : N, (T0 <= T)%N ->
      exists gs Tt, fst (read_its (api_engine enum) rematch (own_reactor_opts 1 T) A (tpl, l, r) fresh) = Some gs /\
                    In Tt gs /\ regen_exact Tt A B = true.
  Proof.
    intros Hnn Hor NG Hc. exists (comp_bound enum true (tr_host A) (tr_pat l)). intros T HT.
    exact (own_comp_implicit_at enum rematch core invert G H (Some T) W NH CC Hnn Hor NG Hc HT).
  Qed.
  Theorem own_bt_implicit_object :
    forallb (fun p => 0 <=? m_hc (snd p)) (gnodes l) = true ->
    oracle_ok enum (tr_host A) (tr_pat l) ->
    ((0 <? length (comps (tr_pat l)))%nat && (length (comps (tr_pat l)) <? length (comps (tr_host A)))%nat = true \/
     (length (comps (tr_host A)) <? length (comps (tr_pat l)))%nat = true \/ id_separatingb (tr_host A) (tr_pat l) = true) ->
    exists T0 : N, forall T : N, (T0 <= T)%N ->
      exists gs Tt, fst (read_its (api_engine enum) rematch (own_reactor_opts 2 T) A (tpl, l, r) fresh) = Some gs /\
                    In Tt gs /\ regen_exact Tt A B = true.
  Proof.
    intros Hnn Hor Hc. exists (N.max (comp_bound enum true (tr_host A) (tr_pat l)) (lenN (enum (node_ids (tr_host A)) (node_ids (tr_pat l))))).
    intros T HT. exact (own_bt_implicit_at enum rematch core invert G H (Some T) W NH CC Hnn Hor Hc HT).
  Qed.
End OwnImplicitObject.
