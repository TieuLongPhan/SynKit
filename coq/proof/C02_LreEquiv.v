(** C02 — longest_radius_extension commutes with every injective renumbering (that keeps the edge-list order, as
    [relabel] does), hence extract_k(its, n_knn) does for EVERY option value, n_knn = -1 included; the result is empty only
    without centre atoms ([lre_nil_iff]); the maximum-radius context contains the extension path and the radius-1 context. *)
From Coq Require Import List NArith ZArith Bool Lia.
From SK Require Import lib.LGraph lib.C01_GraphLemmas model.C01_Model model.C02_Model proof.C02_Proof proof.C02_Lre
                       proof.C02_Ball model.C02_Store proof.C02_Ctx.
Import ListNotations.
Local Open Scope Z_scope.

Section LreEquiv.
Variable f : N -> N.
Hypothesis Hinj : forall a b, f a = f b -> a = b.

Lemma std0_relabel (g : its) u v : std0 (relabel f g) (f u) (f v) = std0 g u v.
Proof. unfold std0. rewrite (adj_relabel Hinj). reflexivity. Qed.

Lemma fold_map_rel {X} (F F' : list N -> X -> list N) (h : X -> X) (L : list X) :
  (forall acc x, In x L -> F' (map f acc) (h x) = map f (F acc x)) ->
  forall acc, fold_left F' (map h L) (map f acc) = map f (fold_left F L acc).
Proof.
  induction L as [|x L IH]; intros H acc; simpl; [reflexivity|].
  rewrite (H acc x (or_introl eq_refl)). apply IH. intros a y I. apply H. right. exact I.
Qed.

Lemma lre_dfs_relabel (g : its) fuel : forall node visited path,
  lre_dfs (relabel f g) fuel (f node) (map f visited) (map f path) = map f (lre_dfs g fuel node visited path).
Proof.
  induction fuel as [|fu IH]; intros node visited path; simpl; [reflexivity|].
  rewrite (nbrs_relabel Hinj).
  apply (fold_map_rel
           (fun longest nb => if std0 g node nb && negb (LGraph.mem nb (node :: visited))
                              then let cur := lre_dfs g fu nb (node :: visited) (path ++ [nb]) in
                                   if (length longest <? length cur)%nat then cur else longest
                              else longest)
           (fun longest nb => if std0 (relabel f g) (f node) nb && negb (LGraph.mem nb (f node :: map f visited))
                              then let cur := lre_dfs (relabel f g) fu nb (f node :: map f visited) (map f path ++ [nb]) in
                                   if (length longest <? length cur)%nat then cur else longest
                              else longest)
           f (nbrs g node)).
  intros acc nb _. rewrite std0_relabel. change (f node :: map f visited) with (map f (node :: visited)). rewrite (mem_map_inj Hinj).
  destruct (std0 g node nb && negb (LGraph.mem nb (node :: visited))); [|reflexivity]. cbv zeta.
  change (map f path ++ [f nb]) with (map f path ++ map f [nb]). rewrite <- map_app, IH, !map_length.
  destruct (length acc <? length (lre_dfs g fu nb (node :: visited) (path ++ [nb])))%nat; reflexivity.
Qed.

Definition mapst2 (st : list N * list N) : list N * list N := (map f (fst st), map f (snd st)).

Lemma lre_step_relabel (g : its) st n : lre_step (relabel f g) (mapst2 st) (f n) = mapst2 (lre_step g st n).
Proof.
  destruct st as [vis best]. unfold lre_step, mapst2. cbn [fst snd]. rewrite (mem_map_inj Hinj).
  destruct (LGraph.mem n vis); [reflexivity|]. cbv zeta.
  assert (length (gnodes (relabel f g)) = length (gnodes g)) as -> by (unfold relabel; simpl; apply map_length).
  change [f n] with (map f [n]). rewrite lre_dfs_relabel, !map_length. cbn [fst snd]. rewrite map_app.
  destruct (length best <? length (lre_dfs g (S (length (gnodes g))) n vis [n]))%nat; reflexivity.
Qed.

Lemma lre_fold_relabel (g : its) L : forall st,
  fold_left (lre_step (relabel f g)) (map f L) (mapst2 st) = mapst2 (fold_left (lre_step g) L st).
Proof. induction L as [|n L IH]; intros st; cbn [map fold_left]; [reflexivity|]. rewrite lre_step_relabel. apply IH. Qed.

Theorem lre_relabel (g : its) rcn : lre (relabel f g) (map f rcn) = map f (lre g rcn).
Proof.
  change (lre (relabel f g) (map f rcn)) with (snd (fold_left (lre_step (relabel f g)) (map f rcn) (mapst2 ([], [])))).
  rewrite lre_fold_relabel. reflexivity.
Qed.

(** extract_k for every option value: 0, > 0, -1 (maximum radius), < -1 *)
Theorem extract_k_z_equivariant (g : its) k : extract_k_z (relabel f g) k = relabel f (extract_k_z g k).
Proof.
  unfold extract_k_z. destruct (k =? 0); [apply (rc_equivariant f Hinj)|].
  rewrite (rc_equivariant f Hinj), node_ids_relabel. destruct (k =? -1).
  - rewrite lre_relabel, map_length. apply (ball_sub_equivariant f Hinj).
  - apply (ball_sub_equivariant f Hinj).
Qed.
End LreEquiv.

Example C02_lre_equivariant_nonvacuous :
  lre ex_its (node_ids (get_rc ex_its)) <> [] /\
  lre (relabel (N.add 10) ex_its) (map (N.add 10) (node_ids (get_rc ex_its))) = map (N.add 10) (lre ex_its (node_ids (get_rc ex_its))) /\
  extract_k_z (relabel (N.add 10) ex_its) (-1) = relabel (N.add 10) (extract_k_z ex_its (-1)).
Proof.
  split; [vm_compute; discriminate|]. split; [apply lre_relabel|apply extract_k_z_equivariant]; intros a b; apply N.add_cancel_l.
Qed.

(** * the result is empty only when there is no centre atom (so the empty alternative of theorem 19 is not an out-of-fuel escape) *)
Lemma lre_step_best_nonempty (g : its) st n : snd st <> [] -> snd (lre_step g st n) <> [].
Proof.
  destruct st as [vis best]. unfold lre_step. cbn [snd]. intros Hb. destruct (LGraph.mem n vis); [exact Hb|]. cbv zeta. cbn [snd].
  destruct (length best <? length (lre_dfs g (S (length (gnodes g))) n vis [n]))%nat eqn:E; [|exact Hb].
  intros C. rewrite C in E. simpl in E. apply Nat.ltb_lt in E. lia.
Qed.

Theorem lre_nil_iff (g : its) rcn : lre g rcn = [] <-> rcn = [].
Proof.
  split; [|intros ->; reflexivity]. destruct rcn as [|n r]; [reflexivity|]. intros E. exfalso. rewrite lre_as_fold in E.
  cbn [fold_left] in E.
  assert (snd (lre_step g ([], []) n) <> []) as H0.
  { unfold lre_step. cbn [LGraph.mem existsb]. cbv zeta. cbn [snd].
    destruct (lre_dfs_spec g (S (length (gnodes g))) n [] [n]) as (ext & Ep & _). rewrite Ep. simpl. discriminate. }
  assert (forall L st, snd st <> [] -> snd (fold_left (lre_step g) L st) <> []) as H.
  { induction L as [|x L IH]; intros st Hs; [exact Hs|]. cbn [fold_left]. apply IH. apply lre_step_best_nonempty. exact Hs. }
  exact (H r _ H0 E).
Qed.

Example C02_lre_nil_nonvacuous : lre ex_its [] = [] /\ lre ex_its [7%N] = [7%N; 6%N; 5%N; 1%N].
Proof. vm_compute. split; reflexivity. Qed.

(** the maximum-radius context (n_knn = -1) contains the whole extension path: the path has r atoms, starts in a centre atom and every
    step is a bond, so its i-th atom is within i < r bonds of the centre.  Stated for the path found in an ITS [s] and the balls of
    any graph [g] that has a bond wherever [s] has a bond with standard_order 0 ([s] itself, or the graph whose skeleton [s] is). *)
Section PathInBall.
Context {A B : Type}.
Variables (s : its) (g : lgraph A B).
Hypothesis Hsg : forall u v, std0 s u v = true -> adj g u v <> None.

Lemma zchain_walk : forall ext n x, zchain s n ext -> In x ext -> exists m, (1 <= m <= length ext)%nat /\ walk_g g n x m.
Proof.
  induction ext as [|v r IH]; intros n x Z I; [destruct I|]. simpl in Z. destruct Z as [Sd Z]. apply Hsg in Sd.
  destruct I as [<-|I].
  - exists 1%nat. split; [simpl; lia|]. econstructor; [constructor|exact Sd].
  - destruct (IH v x Z I) as (m & Hm & Wk). exists (S m). split; [simpl; lia|].
    clear -Wk Sd. induction Wk as [a|a u y m Wk IHw Ad]; [econstructor; [constructor|exact Sd]|]. econstructor; [apply IHw; exact Sd|exact Ad].
Qed.

Lemma lre_in_ball rcn x : In x (lre s rcn) -> dist_le_g g rcn (length (lre s rcn)) x.
Proof.
  intros I. destruct (lre_path s rcn) as [E|(n & ext & In_ & E & Z & Nd)]; [rewrite E in I; destruct I|].
  rewrite E in *. destruct I as [<-|I].
  - exists n, O. repeat split; [exact In_|simpl; lia|constructor].
  - destruct (zchain_walk ext n x Z I) as (m & Hm & Wk). exists n, m. repeat split; [exact In_|simpl; lia|exact Wk].
Qed.
End PathInBall.

Theorem lre_path_in_context (g : its) : wf g ->
  forall x, In x (lre g (node_ids (get_rc g))) -> In x (node_ids (extract_k_z g (-1))).
Proof.
  intros W x I. destruct (extract_k_z_minus1 g W) as [_ HN]. apply HN, dist_le_g_its, (lre_in_ball g g (std0_adj g)), I.
Qed.

Example C02_lre_path_in_context_nonvacuous :
  lre ex_its (node_ids (get_rc ex_its)) = [1%N; 5%N; 6%N; 7%N] /\ In 7%N (node_ids (extract_k_z ex_its (-1))) /\ ~ In 7%N (node_ids (extract_k ex_its 2)).
Proof. vm_compute. split; [reflexivity|]. split; [auto 10|intuition discriminate]. Qed.

(** with a non-empty centre the maximum radius is at least 1: the n_knn = -1 context contains the radius-1 context *)
Theorem max_radius_contains_radius_1 (g : its) : wf g ->
  forall n, In n (node_ids (extract_k g 1)) -> In n (node_ids (extract_k_z g (-1))).
Proof.
  intros W n I. destruct (extract_k_z_minus1 g W) as [_ HN]. apply HN. clear HN.
  destruct (ctx_spec g W 1 (le_n _)) as (N1 & _ & _). apply N1 in I.
  destruct I as (s & m & Is & Hm & Wk).
  assert (lre g (node_ids (get_rc g)) <> []) as Hne by (intros E; apply lre_nil_iff in E; rewrite E in Is; destruct Is).
  exists s, m. repeat split; [exact Is| |exact Wk].
  destruct (lre g (node_ids (get_rc g))); [congruence|simpl; lia].
Qed.
