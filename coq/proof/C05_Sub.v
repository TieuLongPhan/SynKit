(** C05 — the component-aware strategy returns a subset of the exhaustive strategy (matches compared as sets
    of pairs, as Python dicts are), from the specification theorems of proof/C06_*.v instantiated with the reactor's
    configuration and the verified enumerator. Stdlib lists. *)
From Coq Require Import List ZArith Bool Permutation.
From SK Require Import lib.LGraph.
From SK Require Import lib.C06_Spec proof.C06_All proof.C06_Comp proof.C06_CompSem proof.C06_Main.
From SK Require Import model.C03_Model model.C05_Model proof.C05_Proof proof.C05_Order.
Import ListNotations.

Section WithThr.
Context {TH : Thr}.


(** [find] uses its enumeration oracle only by calling it *)
Section FindExt.
  Variables enum enum' : list N -> list N -> list C06_Model.mapping.
  Hypothesis E : forall hn pn, enum hn pn = enum' hn pn.

  Lemma cc_outer_ext cap thr pc cands : forall maps n,
    C06_Model.cc_outer enum cap thr pc cands maps n = C06_Model.cc_outer enum' cap thr pc cands maps n.
  Proof.
    induction cands as [|[i hc] r IH]; intros maps n; simpl; [reflexivity|].
    rewrite E. destruct (C06_Model.cc_inner cap thr i (enum' hc pc) maps n) as [[maps' n']|]; [|reflexivity].
    destruct (C06_Model.capped cap n'); [reflexivity | apply IH].
  Qed.

  Lemma per_cc_all_ext cap thr hcs pcs :
    C06_Model.per_cc_all enum cap thr hcs pcs = C06_Model.per_cc_all enum' cap thr hcs pcs.
  Proof.
    induction pcs as [|pc r IH]; simpl; [reflexivity|].
    destruct (filter _ hcs) as [|c cs]; [reflexivity|]. rewrite cc_outer_ext, IH. reflexivity.
  Qed.

  Lemma find_ext c H P : C06_Model.find enum c H P = C06_Model.find enum' c H P.
  Proof.
    unfold C06_Model.find, C06_Model.find_bt, C06_Model.find_comp, C06_Model.find_all.
    rewrite per_cc_all_ext, !E. reflexivity.
  Qed.
End FindExt.

Lemma matches_monos_on strat host pat :
  matches strat host pat
  = C06_Model.find (C06_Model.monos_on (host_c06 host) (pat_c06 pat)) (cfg_of strat) (host_c06 host) (pat_c06 pat).
Proof. unfold matches. apply find_ext. intros hn pn. apply monos_on'_eq. Qed.

Lemma comp_unl_sound (host : hostg) (pat : molg) :
  let H := host_c06 host in
  let P := pat_c06 pat in
  gwf H -> gwf P -> forall m, In m (comp_unl (C06_Model.monos_on H P) true H P) -> is_mono H P m.
Proof.
  intros H P Hw Pw m Hin.
  pose proof (comp_unl_spec (C06_Model.monos_on H P) H P Hw Pw (monos_on_oracle_ok H P Hw Pw) true) as S. cbv zeta in S.
  destruct ((0 <? length (C06_Model.comps P))%nat && (length (C06_Model.comps P) <? length (C06_Model.comps H))%nat && true)%bool.
  - rewrite S in Hin. destruct Hin.
  - destruct (length (C06_Model.comps H) <? length (C06_Model.comps P))%nat.
    + apply (proj1 S). exact Hin.
    + exact (proj1 (proj1 S m Hin)).
Qed.

Lemma comp_unl_subset_all (host : hostg) (pat : molg) :
  let H := host_c06 host in
  let P := pat_c06 pat in
  gwf H -> gwf P ->
  (C06_Model.lenN (C06_Model.monos_on H P (node_ids H) (node_ids P)) <= thr_val)%N ->
  forall m, In m (comp_unl (C06_Model.monos_on H P) true H P) -> exists m', In m' (matches 0%N host pat) /\ Permutation m m'.
Proof.
  intros H P HwH HwP Hl m Hin.
  rewrite matches_monos_on. fold H P. change (cfg_of 0%N) with (C06_Model.Cfg 0 0 thr_val true false).
  destruct (all_exact (C06_Model.monos_on H P) thr_val true H P (proj1 (monos_on_oracle_ok H P HwH HwP)) Hl) as (_ & Hcomplete & _).
  apply Hcomplete. exact (comp_unl_sound host pat HwH HwP m Hin).
Qed.

(** every component-aware match is an exhaustive match.  Premises: the converted graphs are well formed ([gwf]:
    distinct node ids, bonds join two different listed atoms — evaluated on every case of the correspondence) and
    neither search hits the engine's threshold of 5000 embeddings (past it the engine empties the result, and the
    exhaustive search hits it first). *)
Lemma comp_subset_all (host : hostg) (pat : molg) :
  let H := host_c06 host in
  let P := pat_c06 pat in
  gwf H -> gwf P ->
  (comp_bound (C06_Model.monos_on H P) true H P <= thr_val)%N ->
  (C06_Model.lenN (C06_Model.monos_on H P (node_ids H) (node_ids P)) <= thr_val)%N ->
  forall m, In m (matches 1%N host pat) -> exists m', In m' (matches 0%N host pat) /\ Permutation m m'.
Proof.
  intros H P HwH HwP Hb Hl m. rewrite (matches_monos_on 1%N). fold H P.
  change (cfg_of 1%N) with (C06_Model.Cfg 1 0 thr_val true false).
  rewrite (find_comp_unlimited (C06_Model.monos_on H P) thr_val true H P Hb).
  exact (comp_unl_subset_all host pat HwH HwP Hl m).
Qed.

(** ** insertion order of BOTH inputs: the exhaustive strategy returns the same set of matches (as sets of pairs) *)
Lemma is_mono_same (host host' : hostg) (pat pat' : molg) m :
  same_graph host host' -> same_graph pat pat' ->
  is_mono (host_c06 host) (pat_c06 pat) m -> is_mono (host_c06 host') (pat_c06 pat') m.
Proof.
  intros (H1 & H2 & H3 & _ & _) (P1 & P2 & P3 & _ & _) (A & B & C & D & E).
  unfold is_mono, is_mono_on. split; [exact A|]. split.
  - intros p. rewrite B, !node_ids_pat_c06. apply P3.
  - split; [exact C|]. split.
    + intros p h Hin. destruct (D p h Hin) as (Dh & Dn). split.
      * rewrite node_ids_host_c06 in *. apply H3. exact Dh.
      * rewrite lab_host_c06, lab_pat_c06, H1, P1. rewrite lab_host_c06, lab_pat_c06 in Dn. exact Dn.
    + intros p h p' h' b I1 I2 Hb. rewrite adj_pat_c06, P2 in Hb. rewrite adj_host_c06, H2.
      rewrite <- adj_pat_c06 in Hb. destruct (E p h p' h' b I1 I2 Hb) as (b' & Eb & Em).
      exists b'. split; [|exact Em]. rewrite <- adj_host_c06. exact Eb.
Qed.

Lemma matches_all_any_order (host host' : hostg) (pat pat' : molg) :
  same_graph host host' -> same_graph pat pat' ->
  let H := host_c06 host in let P := pat_c06 pat in
  let H' := host_c06 host' in let P' := pat_c06 pat' in
  gwf H -> gwf P -> gwf H' -> gwf P' ->
  (C06_Model.lenN (C06_Model.monos_on H P (node_ids H) (node_ids P)) <= thr_val)%N ->
  (C06_Model.lenN (C06_Model.monos_on H' P' (node_ids H') (node_ids P')) <= thr_val)%N ->
  forall m, In m (matches 0%N host pat) -> exists m', In m' (matches 0%N host' pat') /\ Permutation m m'.
Proof.
  intros HS PS H P H' P' Hw Pw Hw' Pw' Hl Hl' m. rewrite !matches_monos_on. fold H P H' P'.
  change (cfg_of 0%N) with (C06_Model.Cfg 0 0 thr_val true false).
  destruct (all_exact (C06_Model.monos_on H P) thr_val true H P (proj1 (monos_on_oracle_ok H P Hw Pw)) Hl) as (Hsound & _ & _).
  destruct (all_exact (C06_Model.monos_on H' P') thr_val true H' P' (proj1 (monos_on_oracle_ok H' P' Hw' Pw')) Hl') as (_ & Hcomplete & _).
  intros Hin. apply Hcomplete. apply (is_mono_same host host' pat pat' m HS PS). apply Hsound. exact Hin.
Qed.

End WithThr.
