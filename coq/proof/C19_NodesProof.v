(** C19 — the attribute / identifier level of _complex_vectors (model/C19_Nodes.v) computes, on the export of a reaction
    list under ANY injective identifier assignment with disjoint species / reaction identifiers, exactly the complex list
    and complex graph of the label-level model (model/C19_Model.v).  stdlib lists. *)
From Coq Require Import List NArith ZArith Bool Arith Lia Permutation.
From SK Require Import lib.Tok lib.Reach lib.IRSortKeys model.C17_Model model.C17_NodeModel model.C19_Model
                       model.C19_Nodes proof.C17_Proof proof.C17_Nodes proof.C19_Complexes.
Import ListNotations.
Local Open Scope nat_scope.

(* ------------------------------------------------------------------ sums of per-arc contributions *)

Definition csum {A} (f : A -> Z) (l : list A) : Z := fold_right (fun a acc => (f a + acc)%Z) 0%Z l.

Lemma csum_app {A} (f : A -> Z) l1 l2 : csum f (l1 ++ l2) = (csum f l1 + csum f l2)%Z.
Proof. induction l1 as [|a l1 IH]; simpl; [reflexivity|]. rewrite IH. lia. Qed.
Lemma csum_filter {A} (f : A -> Z) p l : csum f (filter p l) = csum (fun a => if p a then f a else 0%Z) l.
Proof. induction l as [|a l IH]; simpl; [reflexivity|]. destruct (p a); simpl; rewrite IH; reflexivity. Qed.
Lemma csum_plus {A} (f g : A -> Z) l : (csum f l + csum g l)%Z = csum (fun a => (f a + g a)%Z) l.
Proof. induction l as [|a l IH]; simpl; [reflexivity|]. rewrite <- IH. lia. Qed.
Lemma csum_map {A B} (f : B -> Z) (g : A -> B) l : csum f (map g l) = csum (fun a => f (g a)) l.
Proof. induction l as [|a l IH]; simpl; [reflexivity|]. rewrite IH. reflexivity. Qed.
Lemma csum_ext_in {A} (f g : A -> Z) l : (forall a, In a l -> f a = g a) -> csum f l = csum g l.
Proof.
  induction l as [|a l IH]; intros H; simpl; [reflexivity|]. rewrite (H a (or_introl eq_refl)), IH; [reflexivity|].
  intros b I. apply H. right. exact I.
Qed.

Lemma csum_forall2 {A} (R : A -> A -> Prop) (f g : A -> Z) l l' : (forall x y, R x y -> g y = f x) ->
  Forall2 R l l' -> csum g l' = csum f l.
Proof. intros H. induction 1 as [|x y l l' Hxy _ IH]; simpl; [reflexivity|]. rewrite (H x y Hxy), IH. reflexivity. Qed.
Lemma csum_perm {A} (f : A -> Z) l l' : Permutation l l' -> csum f l = csum f l'.
Proof. induction 1; simpl; lia. Qed.

Lemma entry_csum ro arcs s id :
  entry ro arcs s id =
  csum (fun a => if streqb (a_species a) s && streqb (a_rxn a) id && role_eqb (a_role a) ro then a_stoich a else 0%Z) arcs.
Proof.
  induction arcs as [|a arcs IH]; [reflexivity|]. rewrite entry_cons. simpl. rewrite IH.
  destruct (streqb (a_species a) s && streqb (a_rxn a) id && role_eqb (a_role a) ro); [reflexivity|lia].
Qed.

(* ------------------------------------------------------------------ one reaction node: the accumulation loop *)

Definition coeff (a : rarc) : Z := match ra_stoich a with Some c => c | None => 1%Z end.
Definition contrib (si : list (N * nat)) (r : N) (ro : role) (i : nat) (a : rarc) : Z :=
  match index_get si (if N.eqb (ra_u a) r then ra_v a else ra_u a) with
  | Some idx => if Nat.eqb idx i
                then match ra_role a with Some ro' => if role_eqb ro' ro then coeff a else 0%Z | None => 0%Z end
                else 0%Z
  | None => 0%Z
  end.
(** what the arc a adds to position i of the ro-vector of the node r: it is met among the arcs into r and among the arcs
    out of r (a loop at r twice, as in the code) *)
Definition weight (si : list (N * nat)) (r : N) (ro : role) (i : nat) (a : rarc) : Z :=
  ((if N.eqb (ra_v a) r then contrib si r ro i a else 0) + (if N.eqb (ra_u a) r then contrib si r ro i a else 0))%Z.

Definition pick (ro : role) (st : list Z * list Z) : list Z := match ro with Reactant => fst st | Product => snd st end.

Lemma acc_arc_spec si r n ro st a : (forall u idx, index_get si u = Some idx -> idx < n) -> length (pick ro st) = n ->
  length (pick ro (acc_arc si r st a)) = n /\
  forall i, nth i (pick ro (acc_arc si r st a)) 0%Z = (nth i (pick ro st) 0 + contrib si r ro i a)%Z.
Proof.
  intros Hsi L. unfold acc_arc, contrib, coeff.
  destruct (index_get si _) as [idx|] eqn:E; [|split; [exact L|intros; lia]].
  pose proof (Hsi _ _ E) as Hidx.
  destruct (ra_role a) as [[|]|], ro; simpl in *; (split; [rewrite ?row_add_length; exact L|]); intros i;
    rewrite ?row_add_nth by lia; destruct (Nat.eqb idx i); lia.
Qed.

Lemma acc_fold si r n ro : (forall u idx, index_get si u = Some idx -> idx < n) ->
  forall l st, length (pick ro st) = n ->
  length (pick ro (fold_left (acc_arc si r) l st)) = n /\
  forall i, nth i (pick ro (fold_left (acc_arc si r) l st)) 0%Z = (nth i (pick ro st) 0 + csum (contrib si r ro i) l)%Z.
Proof.
  intros Hsi. induction l as [|a l IH]; intros st L; simpl; [split; [exact L|intros; lia]|].
  destruct (acc_arc_spec si r n ro st a Hsi L) as [L1 N1]. destruct (IH _ L1) as [L2 N2].
  split; [exact L2|]. intros i. rewrite N2, N1. lia.
Qed.

Lemma species_index_bound G u idx : index_get (species_index G) u = Some idx -> idx < length (species_index G).
Proof.
  unfold species_index. rewrite combine_length, map_length, seq_length, Nat.min_id. apply index_get_lt.
Qed.

Lemma node_vec_spec G ro r :
  length (node_vec G ro r) = length (species_index G) /\
  forall i, nth i (node_vec G ro r) 0%Z = csum (weight (species_index G) r ro i) (rg_arcs G).
Proof.
  set (n := length (species_index G)).
  destruct (acc_fold (species_index G) r n ro (species_index_bound G) (incident (rg_arcs G) r) (repeat 0%Z n, repeat 0%Z n))
    as [L N]; [destruct ro; apply repeat_length|].
  split; [exact L|]. intros i. specialize (N i). unfold incident in N. rewrite csum_app, !csum_filter, csum_plus in N.
  destruct ro; cbn [pick fst snd] in N; rewrite nth_repeat in N; exact N.
Qed.

(** the walk over identifiers = the walk over reactions when the vectors agree *)
Lemma fold_cstepN (vecN : role -> N -> list Z) (vec : role -> rxn -> list Z) (h : rxn -> N) l :
  (forall e ro, In e l -> vecN ro (h e) = vec ro e) ->
  forall st, fold_left (cstepN vecN) (map h l) st = fold_left (cstep vec) l st.
Proof.
  induction l as [|e l IH]; intros H st; simpl; [reflexivity|].
  assert (E : cstepN vecN st (h e) = cstep vec st e).
  { unfold cstepN, cstep. destruct st as [cs arcs].
    rewrite (H e Reactant (or_introl eq_refl)), (H e Product (or_introl eq_refl)). reflexivity. }
  rewrite E. apply IH. intros e' ro I. apply H. right. exact I.
Qed.

Lemma fold_cstepN_ext (v1 v2 : role -> N -> list Z) l : (forall ro r, v1 ro r = v2 ro r) ->
  forall st, fold_left (cstepN v1) l st = fold_left (cstepN v2) l st.
Proof.
  intros H. induction l as [|r l IH]; intros st; simpl; [reflexivity|].
  assert (E : cstepN v1 st r = cstepN v2 st r) by (unfold cstepN; destruct st; rewrite !H; reflexivity).
  rewrite E. apply IH.
Qed.

Lemma node_vec_by_weight ns A A' r :
  (forall ro i, csum (weight (species_index (RG ns A)) r ro i) A' = csum (weight (species_index (RG ns A)) r ro i) A) ->
  forall ro, node_vec (RG ns A') ro r = node_vec (RG ns A) ro r.
Proof.
  intros H ro. destruct (node_vec_spec (RG ns A') ro r) as [L' N'], (node_vec_spec (RG ns A) ro r) as [L N].
  apply (nth_ext _ _ 0%Z 0%Z); [rewrite L', L; reflexivity|]. intros i _. rewrite N', N. apply H.
Qed.

Lemma node_vecs_by_weight ns A A' r :
  (forall ro i, csum (weight (species_index (RG ns A)) r ro i) A' = csum (weight (species_index (RG ns A)) r ro i) A) ->
  node_vecs (RG ns A') r = node_vecs (RG ns A) r.
Proof.
  intros H. pose proof (node_vec_by_weight ns A A' r H) as V.
  rewrite (surjective_pairing (node_vecs (RG ns A') r)), (surjective_pairing (node_vecs (RG ns A) r)).
  f_equal; [exact (V Reactant)|exact (V Product)].
Qed.

Lemma graph_by_weight ns A A' :
  (forall r ro i, csum (weight (species_index (RG ns A)) r ro i) A' = csum (weight (species_index (RG ns A)) r ro i) A) ->
  (forall ro r, node_vec (RG ns A') ro r = node_vec (RG ns A) ro r) /\
  complex_graph_nodes (RG ns A') = complex_graph_nodes (RG ns A).
Proof.
  intros H. assert (V : forall ro r, node_vec (RG ns A') ro r = node_vec (RG ns A) ro r)
    by (intros ro r; apply node_vec_by_weight, H).
  split; [exact V|]. unfold complex_graph_nodes.
  change (species_nodes (RG ns A')) with (species_nodes (RG ns A)). change (reaction_nodes (RG ns A')) with (reaction_nodes (RG ns A)).
  destruct (species_nodes (RG ns A)); [reflexivity|]. destruct (reaction_nodes (RG ns A)); [reflexivity|].
  f_equal. apply fold_cstepN_ext. exact V.
Qed.

Lemma index_get_notin d u : ~ In u (map fst d) -> index_get d u = None.
Proof.
  induction d as [|[v k] d IH]; intros H; simpl; [reflexivity|].
  destruct (N.eqb_spec v u) as [->|NE]; [exfalso; apply H; left; reflexivity|]. apply IH. intros I. apply H. right. exact I.
Qed.

(* ------------------------------------------------------------------ the export *)

Section Refine.
Variables (ids idr : str -> N) (net : list rxn) (iso : list str).
Hypothesis ids_inj : forall s s', In s (species_set net iso) -> In s' (species_set net iso) -> ids s = ids s' -> s = s'.
Hypothesis idr_inj : forall e e', In e net -> In e' net -> idr (rid e) = idr (rid e') -> rid e = rid e'.
Hypothesis disjoint : forall s e, In s (species_set net iso) -> In e net -> ids s <> idr (rid e).

Let G := raw_export ids idr net iso.
Let sp := species_order net iso.
Let es := edges_sorted net.
Definition gsn (s : str) : rnode := RNode (ids s) (Some 0) (Some 0%Z) (Some s) [].
Definition grn (e : rxn) : rnode := RNode (idr (rid e)) (Some 1) (Some 1%Z) (Some (rrule e)) [].
Definition gan (a : arc) : rarc :=
  match a_role a with
  | Reactant => RArc (ids (a_species a)) (idr (a_rxn a)) (Some Reactant) (Some (a_stoich a))
  | Product => RArc (idr (a_rxn a)) (ids (a_species a)) (Some Product) (Some (a_stoich a))
  end.

Lemma filter_map_all {A B} (p : B -> bool) (g : A -> B) l : (forall a, p (g a) = true) -> filter p (map g l) = map g l.
Proof. intros H. induction l as [|a l IH]; simpl; [reflexivity|]. rewrite H, IH. reflexivity. Qed.
Lemma filter_map_none {A B} (p : B -> bool) (g : A -> B) l : (forall a, p (g a) = false) -> filter p (map g l) = [].
Proof. intros H. induction l as [|a l IH]; simpl; [reflexivity|]. rewrite H, IH. reflexivity. Qed.

Lemma G_species_nodes : species_nodes G = map gsn (species_set net iso).
Proof.
  unfold species_nodes, G, raw_export. simpl. rewrite filter_app.
  rewrite (filter_map_all is_species gsn) by reflexivity. rewrite (filter_map_none is_species grn) by reflexivity.
  apply app_nil_r.
Qed.
Lemma G_reaction_nodes : reaction_nodes G = map grn es.
Proof.
  unfold reaction_nodes, G, raw_export. simpl. rewrite filter_app.
  rewrite (filter_map_none is_reaction gsn) by reflexivity. rewrite (filter_map_all is_reaction grn) by reflexivity.
  reflexivity.
Qed.
Lemma G_species_sorted : species_sorted G = map gsn sp.
Proof. unfold species_sorted. rewrite G_species_nodes, isort_map. reflexivity. Qed.
Lemma G_species_index : species_index G = combine (map ids sp) (seq 0 (length sp)).
Proof. unfold species_index. rewrite G_species_sorted, map_map, map_length. reflexivity. Qed.

Lemma si_species s i : nth_error sp i = Some s -> index_get (species_index G) (ids s) = Some i.
Proof.
  intros H. rewrite G_species_index. rewrite (index_get_nth ids sp 0 i s); auto.
  - apply sp_nodup.
  - intros a b Ia Ib. apply ids_inj; apply sp_in; assumption.
Qed.
Lemma si_reaction e : In e net -> index_get (species_index G) (idr (rid e)) = None.
Proof.
  intros I. apply index_get_notin. rewrite G_species_index. intros H. apply in_map_iff in H. destruct H as ([v k] & E & H).
  simpl in E. subst v. apply in_combine_l in H. apply in_map_iff in H. destruct H as (s & E & Is).
  apply (disjoint s e); [apply sp_in; exact Is|exact I|exact E].
Qed.
Lemma G_index_length : length (species_index G) = length sp.
Proof. rewrite G_species_index, combine_length, map_length, seq_length. apply Nat.min_id. Qed.
Lemma G_arcs : rg_arcs G = map gan (bip_arcs net).
Proof. reflexivity. Qed.

Lemma weight_gan si r ro i a : ids (a_species a) <> r ->
  weight si r ro i (gan a) =
  if N.eqb (idr (a_rxn a)) r
  then match index_get si (ids (a_species a)) with
       | Some idx => if Nat.eqb idx i then (if role_eqb (a_role a) ro then a_stoich a else 0%Z) else 0%Z
       | None => 0%Z
       end
  else 0%Z.
Proof.
  intros NE. apply N.eqb_neq in NE. unfold weight, gan, contrib, coeff.
  destruct (a_role a); simpl; rewrite !NE; destruct (N.eqb (idr (a_rxn a)) r); lia.
Qed.

(** per arc of the export: what it contributes to position i of the ro-vector of the node of reaction e *)
Lemma weight_export e ro i a : In e net -> i < length sp -> arc_ok net iso a ->
  weight (species_index G) (idr (rid e)) ro i (gan a)
  = if streqb (a_species a) (nth i sp []) && streqb (a_rxn a) (rid e) && role_eqb (a_role a) ro then a_stoich a else 0%Z.
Proof.
  intros Ie Hi (Is & e' & Ie' & Er). apply (proj1 (rx_in net e')) in Ie'.
  destruct (In_nth_error _ _ Is) as [j Hj].
  assert (Hji : Nat.eqb j i = streqb (a_species a) (nth i sp [])).
  { destruct (Nat.eqb_spec j i) as [->|NE].
    - rewrite (nth_error_nth _ _ _ Hj). symmetry. apply streqb_refl.
    - symmetry. apply streqb_neq. intros E. apply NE.
      apply (proj1 (NoDup_nth_error sp) (sp_nodup net iso)); unfold sp in *; [apply nth_error_Some; congruence|].
      rewrite Hj. rewrite E. symmetry. apply nth_error_nth'. exact Hi. }
  assert (Hr : N.eqb (idr (a_rxn a)) (idr (rid e)) = streqb (a_rxn a) (rid e)).
  { rewrite Er. destruct (N.eqb_spec (idr (rid e')) (idr (rid e))) as [E|NE].
    - rewrite (idr_inj e' e Ie' Ie E). symmetry. apply streqb_refl.
    - symmetry. apply streqb_neq. intros E. apply NE. rewrite E. reflexivity. }
  rewrite weight_gan by (apply disjoint; [apply sp_in; exact Is|exact Ie]).
  rewrite Hr, (si_species _ _ Hj), Hji.
  destruct (streqb (a_species a) (nth i sp [])), (streqb (a_rxn a) (rid e)), (role_eqb (a_role a) ro); reflexivity.
Qed.

(** the two vectors of a reaction node are the reactant / product vectors of the label-level model *)
Lemma node_vec_export e ro : In e net -> node_vec G ro (idr (rid e)) = cvec ro net iso e.
Proof.
  intros Ie. destruct (node_vec_spec G ro (idr (rid e))) as [L N].
  apply (nth_ext _ _ 0%Z 0%Z); [rewrite L, G_index_length, cvec_length; reflexivity|].
  intros i Hi. rewrite L, G_index_length in Hi. rewrite N, (cvec_nth ro net iso e i Hi), entry_csum, G_arcs, csum_map. apply csum_ext_in. intros a Ia.
  apply (weight_export e ro i a Ie Hi).
  exact (proj1 (Forall_forall _ _) (C17_Nodes.arcs_ok idr net iso idr_inj) a Ia).
Qed.

Theorem nodes_refine : net <> [] -> species_set net iso <> [] ->
  complex_graph_nodes G = Some (complex_graph net iso).
Proof.
  intros NE SE. unfold complex_graph_nodes. rewrite G_species_nodes, G_reaction_nodes.
  assert (es <> []) as EE.
  { unfold es. intros E. apply NE. pose proof (edges_sorted_perm net) as P. rewrite E in P. apply Permutation_nil in P. exact P. }
  destruct (map gsn (species_set net iso)) eqn:E1; [apply map_eq_nil in E1; congruence|].
  destruct (map grn es) eqn:E2; [apply map_eq_nil in E2; congruence|].
  rewrite <- E2. f_equal. rewrite map_map. unfold complex_graph. fold es.
  apply (fold_cstepN (node_vec G) (fun ro e => cvec ro net iso e) (fun e => idr (rid e))).
  intros e ro I. apply node_vec_export. apply in_edges_sorted. exact I.
Qed.
End Refine.


(* ------------------------------------------------------------------ sides that are dicts give distinct incidences *)

Definition akey (a : arc) : str * str * role := (a_species a, a_rxn a, a_role a).

Lemma nodup_side_keys (id : str) (ro : role) (sd : side) : NoDup (map fst sd) ->
  NoDup (map akey (map (fun p => Arc (fst p) id (snd p) ro) sd)).
Proof.
  induction sd as [|p sd IH]; intros H; simpl; [constructor|]. inversion H; subst. constructor; [|apply IH; assumption].
  intros I. apply in_map_iff in I. destruct I as (a & E & I). apply in_map_iff in I. destruct I as (q & <- & I).
  unfold akey in E. simpl in E. inversion E. apply H2. rewrite <- H1. apply in_map. exact I.
Qed.

Lemma arcs_of_keys e : NoDup (map fst (rlhs e)) -> NoDup (map fst (rrhs e)) -> NoDup (map akey (arcs_of e)).
Proof.
  intros H1 H2. unfold arcs_of. rewrite map_app. apply NoDup_app_intro; [apply nodup_side_keys; exact H1|apply nodup_side_keys; exact H2|].
  intros k I1 I2. apply in_map_iff in I1. destruct I1 as (a & <- & I1). apply in_map_iff in I1. destruct I1 as (p & <- & _).
  apply in_map_iff in I2. destruct I2 as (b & E & I2). apply in_map_iff in I2. destruct I2 as (q & <- & _).
  unfold akey in E. simpl in E. inversion E.
Qed.

Lemma arcs_of_rxn e a : In a (arcs_of e) -> a_rxn a = rid e.
Proof.
  unfold arcs_of. intros I. apply in_app_iff in I. destruct I as [I|I]; apply in_map_iff in I; destruct I as (p & <- & _); reflexivity.
Qed.

Lemma flat_keys es : NoDup (map rid es) -> (forall e, In e es -> NoDup (map fst (rlhs e)) /\ NoDup (map fst (rrhs e))) ->
  NoDup (map akey (flat_map arcs_of es)).
Proof.
  induction es as [|e es IH]; intros H Hd; simpl; [constructor|]. inversion H; subst. rewrite map_app. apply NoDup_app_intro.
  - destruct (Hd e (or_introl eq_refl)). apply arcs_of_keys; assumption.
  - apply IH; auto. intros e' I. apply Hd. right. exact I.
  - intros k I1 I2. apply in_map_iff in I1. destruct I1 as (a & <- & I1). apply in_map_iff in I2. destruct I2 as (b & E & I2).
    apply in_flat_map in I2. destruct I2 as (e' & Ie' & Ib). apply H2. apply in_map_iff. exists e'. split; [|exact Ie'].
    rewrite <- (arcs_of_rxn e a I1), <- (arcs_of_rxn e' b Ib). unfold akey in E. inversion E. reflexivity.
Qed.

(** unique edge ids + sides without repeated species (dicts) => the premise of [undirected_refine] *)
Lemma keys_nodup_of_dicts net : NoDup (map rid net) ->
  (forall e, In e net -> NoDup (map fst (rlhs e)) /\ NoDup (map fst (rrhs e))) ->
  NoDup (map (fun a => (a_species a, a_rxn a, a_role a)) (bip_arcs net)).
Proof.
  intros H Hd. unfold bip_arcs. apply (flat_keys (edges_sorted net)).
  - eapply NoDup_rid_perm; [apply edges_sorted_perm|exact H].
  - intros e I. apply Hd. apply in_edges_sorted. exact I.
Qed.

(* ------------------------------------------------------------------ neither the direction nor the order of the arcs plays a part *)

Definition rev_arc (x : rarc) : rarc := RArc (ra_v x) (ra_u x) (ra_role x) (ra_stoich x).

Lemma weight_rev si r ro i x : weight si r ro i (rev_arc x) = weight si r ro i x.
Proof.
  unfold weight, contrib, rev_arc, coeff. simpl.
  destruct (N.eqb_spec (ra_u x) r) as [Eu|Nu], (N.eqb_spec (ra_v x) r) as [Ev|Nv]; try lia.
  rewrite Eu, Ev. lia.
Qed.

(** reversing any set of arcs (keeping role and coefficient) changes neither a vector nor the complex graph: the role, not the
    direction, says on which side of the reaction a species stands *)
Theorem direction_irrelevant ns A A' : Forall2 (fun x y => y = x \/ y = rev_arc x) A A' ->
  (forall ro r, node_vec (RG ns A') ro r = node_vec (RG ns A) ro r) /\
  complex_graph_nodes (RG ns A') = complex_graph_nodes (RG ns A).
Proof.
  intros HA. apply graph_by_weight. intros r ro i. revert HA. apply csum_forall2.
  intros x y [->| ->]; [reflexivity|apply weight_rev].
Qed.

(** ... so the vectors and the complex graph depend only on the MULTISET of incidences *)
Theorem arc_order_irrelevant ns A A' : Permutation A A' ->
  (forall ro r, node_vec (RG ns A') ro r = node_vec (RG ns A) ro r) /\
  complex_graph_nodes (RG ns A') = complex_graph_nodes (RG ns A).
Proof. intros P. apply graph_by_weight. intros r ro i. symmetry. apply csum_perm. exact P. Qed.

Lemma forall2_perm_map {A B C} (R : A -> B -> Prop) (g : C -> B) E E0 : Permutation E E0 ->
  forall L, Forall2 R E0 (map g L) -> exists L', Permutation L' L /\ Forall2 R E (map g L').
Proof.
  induction 1 as [|x l l' P IH|x y l|l l1 l2 P1 IH1 P2 IH2]; intros L H.
  - destruct L; inversion H. exists []. split; constructor.
  - destruct L as [|c L]; inversion H; subst. destruct (IH L H5) as (L' & PL & F). exists (c :: L'). split; [constructor; exact PL|constructor; assumption].
  - destruct L as [|c [|d L]]; inversion H as [|? ? ? ? Hx H']; subst; inversion H' as [|? ? ? ? Hy H'']; subst.
    exists (d :: c :: L). split; [apply perm_swap|constructor; [exact Hy|constructor; [exact Hx|exact H'']]].
  - destruct (IH2 L H) as (L1 & PL1 & F1). destruct (IH1 L1 F1) as (L2 & PL2 & F2). exists L2. split; [eapply Permutation_trans; eassumption|exact F2].
Qed.

(* ------------------------------------------------------------------ undirected input: orientation by role *)

Lemma find_app_none {A} (p : A -> bool) l1 l2 : (forall x, In x l1 -> p x = false) -> find p (l1 ++ l2) = find p l2.
Proof.
  induction l1 as [|a l1 IH]; intros H; simpl; [reflexivity|]. rewrite (H a (or_introl eq_refl)). apply IH.
  intros x I. apply H. right. exact I.
Qed.
Lemma find_map_some {A B} (p : B -> bool) (g : A -> B) l rest x : In x l -> p (g x) = true ->
  exists x', In x' l /\ p (g x') = true /\ find p (map g l ++ rest) = Some (g x').
Proof.
  induction l as [|a l IH]; intros I Hp; [destruct I|]. simpl. destruct (p (g a)) eqn:E.
  - exists a. split; [left; reflexivity|]. split; [exact E|reflexivity].
  - destruct I as [->|I]; [congruence|]. destruct (IH I Hp) as (x' & I' & Hp' & F). exists x'. split; [right; exact I'|]. split; assumption.
Qed.

(** an undirected edge is a re-orientation of a directed arc: same attributes, same two ends *)
Definition reor (e x : rarc) : Prop :=
  ra_role e = ra_role x /\ ra_stoich e = ra_stoich x /\
  ((ra_u e = ra_u x /\ ra_v e = ra_v x) \/ (ra_u e = ra_v x /\ ra_v e = ra_u x)).

Section Orient.
Variables (ids idr : str -> N) (net : list rxn) (iso : list str).
Hypothesis ids_inj : forall s s', In s (species_set net iso) -> In s' (species_set net iso) -> ids s = ids s' -> s = s'.
Hypothesis idr_inj : forall e e', In e net -> In e' net -> idr (rid e) = idr (rid e') -> rid e = rid e'.
Hypothesis disjoint : forall s e, In s (species_set net iso) -> In e net -> ids s <> idr (rid e).
(** the sides are dicts: no two incidences with the same species, reaction and role *)
Hypothesis keys_nodup : NoDup (map (fun a => (a_species a, a_rxn a, a_role a)) (bip_arcs net)).

Let G := raw_export ids idr net iso.
Let ns := rg_nodes G.
Notation gsn := (gsn ids).
Notation grn := (grn idr).
Notation gan := (gan ids idr).

Lemma ns_eq : ns = map gsn (species_set net iso) ++ map grn (edges_sorted net).
Proof. reflexivity. Qed.

Lemma is_rxn_species s : In s (species_set net iso) -> u_is_rxn ns (ids s) = false.
Proof.
  intros I. unfold u_is_rxn, node_of. rewrite ns_eq.
  destruct (find_map_some (fun n => N.eqb (rn_id n) (ids s)) gsn (species_set net iso) (map grn (edges_sorted net)) s I (N.eqb_refl _))
    as (s' & _ & _ & ->). reflexivity.
Qed.
Lemma is_rxn_reaction e : In e net -> u_is_rxn ns (idr (rid e)) = true.
Proof.
  intros I. unfold u_is_rxn, node_of. rewrite ns_eq. rewrite find_app_none.
  - rewrite <- (app_nil_r (map grn (edges_sorted net))).
    destruct (find_map_some (fun n => N.eqb (rn_id n) (idr (rid e))) grn (edges_sorted net) [] e
                (proj2 (in_edges_sorted net e) I) (N.eqb_refl _)) as (e' & _ & _ & ->). reflexivity.
  - intros x Ix. apply in_map_iff in Ix. destruct Ix as (s & <- & Is). simpl. apply N.eqb_neq. apply disjoint; assumption.
Qed.

Definition okA (a : arc) : Prop := In (a_species a) (species_set net iso) /\ exists e, In e net /\ a_rxn a = rid e.
Lemma okA_bip a : In a (bip_arcs net) -> okA a.
Proof.
  intros I. destruct (proj1 (Forall_forall _ _) (C17_Nodes.arcs_ok idr net iso idr_inj) a I) as (Is & e & Ie & Er).
  split; [apply sp_in; exact Is|]. exists e. split; [apply rx_in; exact Ie|exact Er].
Qed.

Lemma orient_pair_export a e : okA a -> reor e (gan a) -> orient_pair ns e = (ra_u (gan a), ra_v (gan a)).
Proof.
  intros (Is & e' & Ie' & Er) (Hr & _ & Hor). unfold orient_pair. rewrite Hr.
  pose proof (is_rxn_species _ Is) as Hs. pose proof (is_rxn_reaction _ Ie') as Hx. rewrite <- Er in Hx.
  unfold C19_NodesProof.gan in *. destruct (a_role a); simpl in *; destruct Hor as [[-> ->]|[-> ->]]; rewrite ?Hs, ?Hx; reflexivity.
Qed.

Lemma gan_pair_inj a a' : okA a -> okA a' ->
  ra_u (gan a) = ra_u (gan a') -> ra_v (gan a) = ra_v (gan a') ->
  (a_species a, a_rxn a, a_role a) = (a_species a', a_rxn a', a_role a').
Proof.
  intros (Is & e & Ie & Er) (Is' & e' & Ie' & Er'). unfold C19_NodesProof.gan.
  destruct (a_role a), (a_role a'); simpl; intros H1 H2.
  - rewrite (ids_inj _ _ Is Is' H1). rewrite Er, Er' in *. rewrite (idr_inj _ _ Ie Ie' H2). reflexivity.
  - exfalso. rewrite Er' in H1. exact (disjoint _ _ Is Ie' H1).
  - exfalso. rewrite Er in H1. exact (disjoint _ _ Is' Ie (eq_sym H1)).
  - rewrite (ids_inj _ _ Is Is' H2). rewrite Er, Er' in *. rewrite (idr_inj _ _ Ie Ie' H1). reflexivity.
Qed.

Lemma rarc_eta x : RArc (ra_u x) (ra_v x) (ra_role x) (ra_stoich x) = x.
Proof. destruct x; reflexivity. Qed.

Lemma orient_fold L : Forall okA L -> NoDup (map (fun a => (a_species a, a_rxn a, a_role a)) L) ->
  forall E D0, Forall2 reor E (map gan L) ->
  (forall x a, In x D0 -> In a L -> ~ (ra_u x = ra_u (gan a) /\ ra_v x = ra_v (gan a))) ->
  fold_left (orient_step ns) E D0 = D0 ++ map gan L.
Proof.
  induction L as [|a L IH]; intros Hok Hnd E D0 HE Hfree.
  - inversion HE; subst. simpl. rewrite app_nil_r. reflexivity.
  - simpl in HE. inversion HE as [|e ? E' ? He HE']; subst. simpl.
    inversion Hok as [|? ? Hoka Hok']; subst. simpl in Hnd. inversion Hnd as [|? ? Hnotin Hnd']; subst.
    assert (Hstep : orient_step ns D0 e = D0 ++ [gan a]).
    { unfold orient_step. rewrite (orient_pair_export a e Hoka He). simpl fst. simpl snd.
      assert (X : existsb (same_arc (ra_u (gan a)) (ra_v (gan a))) D0 = false).
      { apply not_true_is_false. intros X. apply existsb_exists in X. destruct X as (x & Ix & Hx).
        unfold same_arc in Hx. apply andb_true_iff in Hx. destruct Hx as [H1 H2]. apply N.eqb_eq in H1, H2.
        apply (Hfree x a Ix (or_introl eq_refl)). split; assumption. }
      rewrite X. destruct He as (Hr & Hst & _). rewrite Hr, Hst, rarc_eta. reflexivity. }
    rewrite Hstep. rewrite (IH Hok' Hnd' E' (D0 ++ [gan a]) HE').
    + rewrite <- app_assoc. reflexivity.
    + intros x a' Ix Ia' [H1 H2]. apply in_app_iff in Ix. destruct Ix as [Ix|[<-|[]]].
      * apply (Hfree x a' Ix (or_intror Ia')). split; assumption.
      * apply Hnotin. rewrite (gan_pair_inj a a' Hoka (proj1 (Forall_forall _ _) Hok' a' Ia') H1 H2).
        apply (in_map (fun a => (a_species a, a_rxn a, a_role a))). exact Ia'.
Qed.

Lemma orient_perm L : Permutation L (bip_arcs net) -> forall E, Forall2 reor E (map gan L) ->
  as_bipartite_undirected (RG ns E) = RG ns (map gan L).
Proof.
  intros PL E F. unfold as_bipartite_undirected, orient. simpl. f_equal.
  apply (orient_fold L); [| |exact F|intros x a []].
  - apply Forall_forall. intros a Ia. apply okA_bip. eapply Permutation_in; [exact PL|exact Ia].
  - eapply Permutation_NoDup; [apply Permutation_map, Permutation_sym, PL|exact keys_nodup].
Qed.

(** an undirected (multi)graph with the nodes and incidences of the export, each incidence listed in either orientation, is
    turned by _as_bipartite into exactly the directed export, hence gives the label-level complex graph *)
Theorem undirected_refine E : Forall2 reor E (rg_arcs G) -> net <> [] -> species_set net iso <> [] ->
  as_bipartite_undirected (RG ns E) = G /\
  complex_graph_nodes (as_bipartite_undirected (RG ns E)) = Some (complex_graph net iso).
Proof.
  intros HE NE SE. rewrite (orient_perm (bip_arcs net) (Permutation_refl _) E HE).
  split; [reflexivity|]. apply nodes_refine; assumption.
Qed.
(** the same when the incidences are listed in ANY order *)
Theorem undirected_refine_perm E E0 : Permutation E E0 -> Forall2 reor E0 (rg_arcs G) -> net <> [] -> species_set net iso <> [] ->
  complex_graph_nodes (as_bipartite_undirected (RG ns E)) = Some (complex_graph net iso).
Proof.
  intros P HE NE SE.
  change (Forall2 reor E0 (map gan (bip_arcs net))) in HE.
  destruct (forall2_perm_map reor gan E E0 P (bip_arcs net) HE) as (L' & PL & F).
  rewrite (orient_perm L' PL E F).
  rewrite (proj2 (arc_order_irrelevant ns (map gan (bip_arcs net)) (map gan L') (Permutation_map gan (Permutation_sym PL)))).
  apply (nodes_refine ids idr net iso ids_inj idr_inj disjoint NE SE).
Qed.
End Orient.

(* non-vacuity: A + B <-> C, C -> 2A with species identifiers 11, 2, 10 and reaction identifiers 7, 3, 5 *)
Definition exn_G : rgraph :=
  raw_export (look (species_set C19_Complexes.ex_net []) [11%N; 2%N; 10%N])
             (look (map rid (edges_sorted C19_Complexes.ex_net)) [7%N; 3%N; 5%N]) C19_Complexes.ex_net [].
Example ex_nodes : complex_graph_nodes exn_G = Some (complex_graph C19_Complexes.ex_net []) /\
  map rn_id (rg_nodes exn_G) = [11%N; 2%N; 10%N; 7%N; 3%N; 5%N].
Proof. split; vm_compute; reflexivity. Qed.

(** attribute rules on a hand-made graph: node 1 (no kind, flag 0, no label -> "1"), node 2 ("species", label "B"), node 3
    (kind "reaction" but flag 0: a SPECIES), node 4 (flag 1): arcs 1 -> 4 (reactant, no stoich = 1), 4 -> 2 (product, 2),
    2 -> 4 written backwards as 4 -> 2 is one arc only; 3 -> 4 without role is ignored *)
Definition exn_raw : rgraph :=
  RG [RNode 1 None (Some 0%Z) None [49%N]; RNode 2 (Some 0) None (Some [66%N]) [50%N];
      RNode 3 (Some 1) (Some 0%Z) (Some [67%N]) [51%N]; RNode 4 None (Some 1%Z) None [52%N]]
     [RArc 1 4 (Some Reactant) None; RArc 4 2 (Some Product) (Some 2%Z); RArc 3 4 None (Some 5%Z)].
Example ex_raw_attributes :
  map eff_label (species_sorted exn_raw) = [[49%N]; [66%N]; [67%N]] /\ map rn_id (reaction_nodes exn_raw) = [4%N] /\
  complex_graph_nodes exn_raw = Some ([[1; 0; 0]; [0; 2; 0]]%Z, [(0, 1)]).
Proof. repeat apply conj; vm_compute; reflexivity. Qed.

(* the same export handed over as an undirected graph with some edges listed reaction-first *)
Definition exn_U : list rarc :=
  map (fun x => if N.eqb (ra_v x) 7 then RArc (ra_v x) (ra_u x) (ra_role x) (ra_stoich x) else x) (rg_arcs exn_G).
Example ex_undirected : as_bipartite_undirected (RG (rg_nodes exn_G) exn_U) = exn_G /\ exn_U <> rg_arcs exn_G /\
  orient [RNode 1 (Some 0) None None []; RNode 2 (Some 1) None None []]
         [RArc 2 1 (Some Reactant) None; RArc 1 2 (Some Reactant) (Some 2%Z); RArc 1 2 (Some Product) (Some 3%Z)]
  = [RArc 1 2 (Some Reactant) (Some 3%Z); RArc 2 1 (Some Product) (Some 3%Z)].
Proof. split; [vm_compute; reflexivity|]. split; [vm_compute; discriminate|vm_compute; reflexivity]. Qed.

Example ex_direction :
  complex_graph_nodes (RG (rg_nodes exn_raw) (map rev_arc (rg_arcs exn_raw))) = complex_graph_nodes exn_raw /\
  map rev_arc (rg_arcs exn_raw) <> rg_arcs exn_raw /\
  NoDup (map (fun a => (a_species a, a_rxn a, a_role a)) (bip_arcs C19_Complexes.ex_net)).
Proof. split; [vm_compute; reflexivity|]. split; [vm_compute; discriminate|]. apply keys_nodup_of_dicts; vm_compute.
  - repeat constructor; simpl; intuition discriminate.
  - intros e [<-|[<-|[<-|[]]]]; split; repeat constructor; simpl; intuition discriminate.
Qed.

(* ------------------------------------------------------------------ the reading rules for attributes, stated *)

(** classification: "species" (kind) or flag 0 makes a species — even when the other attribute says reaction; a reaction
    needs kind "reaction" or flag 1 and must not be a species; a node with neither attribute (or other values) is neither *)
Lemma kind_is_spec k n : kind_is k n = true <-> rn_kind n = Some k.
Proof. unfold kind_is. destruct (rn_kind n) as [k'|]; [rewrite Nat.eqb_eq; split; congruence|split; discriminate]. Qed.
Lemma bflag_is_spec z n : bflag_is z n = true <-> rn_bflag n = Some z.
Proof. unfold bflag_is. destruct (rn_bflag n) as [z'|]; [rewrite Z.eqb_eq; split; congruence|split; discriminate]. Qed.

Theorem classification_spec n :
  (is_species n = true <-> rn_kind n = Some 0 \/ rn_bflag n = Some 0%Z) /\
  (is_reaction n = true <-> is_species n = false /\ (rn_kind n = Some 1 \/ rn_bflag n = Some 1%Z)) /\
  (is_species n = true -> is_reaction n = false).
Proof.
  unfold is_reaction, is_species. split; [|split].
  - rewrite orb_true_iff, kind_is_spec, bflag_is_spec. reflexivity.
  - rewrite andb_true_iff, negb_true_iff, orb_true_iff, kind_is_spec, bflag_is_spec. reflexivity.
  - intros ->. reflexivity.
Qed.

Definition with_default_stoich (a : rarc) : rarc := RArc (ra_u a) (ra_v a) (ra_role a) (Some (coeff a)).
Definition counts_for (G : rgraph) (r : N) (a : rarc) : bool :=
  match ra_role a, index_get (species_index G) (if N.eqb (ra_u a) r then ra_v a else ra_u a) with
  | Some _, Some _ => true
  | _, _ => false
  end.

(** an arc without a stoich attribute counts with coefficient 1; an arc without (or with an unknown) role, and an arc whose other
    end is not a species node, contribute nothing to the vectors of a reaction node *)
Theorem attribute_defaults ns A r :
  node_vecs (RG ns (map with_default_stoich A)) r = node_vecs (RG ns A) r /\
  node_vecs (RG ns (filter (counts_for (RG ns A) r) A)) r = node_vecs (RG ns A) r.
Proof.
  split; apply node_vecs_by_weight; intros ro i.
  - rewrite csum_map. apply csum_ext_in. reflexivity.
  - rewrite csum_filter. apply csum_ext_in. intros a _. destruct (counts_for (RG ns A) r a) eqn:C; [reflexivity|].
    assert (Z0 : contrib (species_index (RG ns A)) r ro i a = 0%Z).
    { unfold counts_for in C. unfold contrib.
      destruct (ra_role a), (index_get _ _) as [idx|]; try discriminate C; try reflexivity. destruct (Nat.eqb idx i); reflexivity. }
    unfold weight. rewrite Z0. destruct (N.eqb _ r), (N.eqb _ r); reflexivity.
Qed.

Example ex_attribute_rules :
  is_species (RNode 3 (Some 1) (Some 0%Z) None []) = true /\ is_reaction (RNode 3 (Some 1) (Some 0%Z) None []) = false /\
  is_reaction (RNode 4 (Some 2) (Some 1%Z) None []) = true /\ is_species (RNode 5 None None None []) = false /\
  node_vecs exn_raw 4 = ([1; 0; 0]%Z, [0; 2; 0]%Z) /\ filter (counts_for exn_raw 4) (rg_arcs exn_raw) = firstn 2 (rg_arcs exn_raw).
Proof. repeat apply conj; vm_compute; reflexivity. Qed.

(** the species labels in index order, and the node counts, of the export are those of the label-level model *)
Lemma nodes_labels ids idr net iso :
  map eff_label (species_sorted (raw_export ids idr net iso)) = species_order net iso /\
  length (species_nodes (raw_export ids idr net iso)) = length (species_order net iso) /\
  length (reaction_nodes (raw_export ids idr net iso)) = length (reaction_order net).
Proof.
  rewrite G_species_sorted, G_species_nodes, G_reaction_nodes, map_map, !map_length. split; [apply map_id|]. split.
  - rewrite species_order_eq. reflexivity.
  - apply Permutation_length. eapply Permutation_trans; [apply edges_sorted_perm|apply Permutation_sym, reaction_order_perm].
Qed.

Example ex_arc_order :
  complex_graph_nodes (RG (rg_nodes exn_raw) (rev (rg_arcs exn_raw))) = complex_graph_nodes exn_raw /\ rev (rg_arcs exn_raw) <> rg_arcs exn_raw /\
  complex_graph_nodes (as_bipartite_undirected (RG (rg_nodes exn_G) (rev exn_U))) = Some (complex_graph C19_Complexes.ex_net []) /\
  as_bipartite_undirected (RG (rg_nodes exn_G) (rev exn_U)) <> exn_G.
Proof. split; [vm_compute; reflexivity|]. split; [vm_compute; discriminate|]. split; [vm_compute; reflexivity|vm_compute; discriminate]. Qed.

(* ------------------------------------------------------------------ parallel arcs add up (multigraph inputs) *)

Lemma contrib_coeff si r ro i u v role c :
  contrib si r ro i (RArc u v role (Some c)) = (c * contrib si r ro i (RArc u v role (Some 1%Z)))%Z.
Proof.
  unfold contrib, coeff. simpl.
  destruct (index_get si _) as [idx|]; [destruct (Nat.eqb idx i); [destruct role as [ro'|]; [destruct (role_eqb ro' ro)|]|]|]; lia.
Qed.

Lemma weight_split si r ro i u v role c1 c2 :
  weight si r ro i (RArc u v role (Some (c1 + c2)%Z)) =
  (weight si r ro i (RArc u v role (Some c1)) + weight si r ro i (RArc u v role (Some c2)))%Z.
Proof.
  unfold weight. simpl. rewrite (contrib_coeff _ _ _ _ _ _ _ (c1 + c2)), (contrib_coeff _ _ _ _ _ _ _ c1), (contrib_coeff _ _ _ _ _ _ _ c2).
  destruct (N.eqb v r), (N.eqb u r); lia.
Qed.

(** a multiset written with a coefficient, as one arc per molecule, or in any batches is the same multiset: splitting an arc of
    coefficient c1 + c2 into two parallel arcs c1, c2 (same ends, same role) changes no vector and not the complex graph *)
Theorem parallel_arcs_add ns pre post u v role c1 c2 :
  let A := pre ++ RArc u v role (Some (c1 + c2)%Z) :: post in
  let A' := pre ++ RArc u v role (Some c1) :: RArc u v role (Some c2) :: post in
  (forall ro r, node_vec (RG ns A') ro r = node_vec (RG ns A) ro r) /\
  complex_graph_nodes (RG ns A') = complex_graph_nodes (RG ns A).
Proof.
  intros A A'. apply graph_by_weight. intros r ro i. unfold A, A'. rewrite !csum_app. simpl. rewrite weight_split. lia.
Qed.

Example ex_parallel :
  complex_graph_nodes (RG (rg_nodes exn_raw) [RArc 1 4 (Some Reactant) None; RArc 4 2 (Some Product) (Some 1%Z); RArc 4 2 (Some Product) None;
                                                RArc 3 4 None (Some 5%Z)]) = complex_graph_nodes exn_raw.
Proof. vm_compute. reflexivity. Qed.
