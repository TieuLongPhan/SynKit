(** C08 — directed inputs: the serialisation of a DiGraph ([dserialise], model/C08_Digraph.v) is a function of the
    covered digraph and determines it; hence for the attribute-sort and the wl / morgan back-ends the signature of
    a DiGraph is a function of the digraph (insertion order of nodes and arcs, uncovered attributes do not matter)
    and equal signatures make two digraphs isomorphic AS DIGRAPHS (the direction of every arc is content). *)
From Coq Require Import String List NArith ZArith Bool Arith Lia Permutation.
From SK Require Import lib.LGraph lib.IRSortKeys lib.IRCore lib.StrJoin.
From SK Require Import model.C08_Model model.C08_Digraph proof.C08_Spec proof.C08_DSpec proof.C08_Sort proof.C08_Faithful
                       proof.C08_Cov proof.C08_SigFun proof.C08_Render proof.C08_Sound.
From SK Require lib.IRInst.
Import ListNotations.
Open Scope string_scope. Open Scope list_scope. Open Scope nat_scope.

(* ---------------- dgeq_cov is an equivalence ---------------- *)
Lemma dgeq_cov_refl g : dgeq_cov g g.
Proof. split; apply Permutation_refl. Qed.
Lemma dgeq_cov_sym g h : dgeq_cov g h -> dgeq_cov h g.
Proof. intros [H1 H2]. split; apply Permutation_sym; auto. Qed.
Lemma dgeq_cov_trans g h k : dgeq_cov g h -> dgeq_cov h k -> dgeq_cov g k.
Proof. intros [H1 H2] [H3 H4]. split; eapply perm_trans; eauto. Qed.
Lemma dgeq_cov_ids g h : dgeq_cov g h -> Permutation (node_ids g) (node_ids h).
Proof. intros [H _]. rewrite !node_ids_cov. apply Permutation_map. exact H. Qed.

Definition dsimple (g : graph) : Prop := NoDup (node_ids g) /\ NoDup (map fst (dcov_edges g)).
Lemma dcov_fst (g : graph) : map fst (dcov_edges g) = map (fun e : N * N * eattr => fst e) (gedges g).
Proof. unfold dcov_edges. rewrite map_map. apply map_ext. intros [[a b] x]. reflexivity. Qed.
Lemma dwf_dsimple g : dwf g -> dsimple g.
Proof. intros (H1 & _ & H3). split; auto. rewrite dcov_fst. exact H3. Qed.
Lemma dsimple_dgeq_cov g h : dgeq_cov g h -> dsimple g -> dsimple h.
Proof.
  intros Hq [H1 H2]. split.
  - eapply Permutation_NoDup; [apply dgeq_cov_ids; exact Hq|exact H1].
  - destruct Hq as [_ Hq]. eapply Permutation_NoDup; [apply Permutation_map; exact Hq|exact H2].
Qed.

(* ---------------- the serialisation factors through the covered digraph ---------------- *)
Definition DEK (c : N * N * ecv) : list Z :=
  let '(u, v, (o, t, s)) := c in
  ([Z.of_N (N.min u v); Z.of_N (N.max u v); o] ++ (match t with Some b => [b] | None => [] end) ++ [sd0 s]) ++ [Z.of_N u; Z.of_N v].
Definition DEI (c : N * N * ecv) : str :=
  let '(u, v, (o, t, s)) := c in
  lit "(" ++ decN u ++ sep2 ++ decN v ++ lit ")" ++ lit ":" ++ lit "("
  ++ lit "(" ++ decN (N.min u v) ++ sep2 ++ decN (N.max u v) ++ lit ")"
  ++ sep2 ++ OS o t ++ sep2 ++ (match s with Some s => fl s | None => lit "0" end) ++ lit ")".

Lemma dekey_cov e : dekey e = DEK (dcove e).
Proof. destruct e as [[u v] [o s t]]. unfold dekey, DEK, dcove, ecov, std0, sd0. cbn [eo es et]. destruct t; reflexivity. Qed.
Lemma dedge_item_cov e : dedge_item e = DEI (dcove e).
Proof. destruct e as [[u v] [o s t]]. reflexivity. Qed.
Lemma map_dcov_sort_edges (l : list (N * N * eattr)) : map dcove (sort_by dekey l) = sort_by DEK (map dcove l).
Proof. rewrite sort_by_map. f_equal. apply sort_by_ext. intros; apply dekey_cov. Qed.

Lemma dserialise_cov g :
  dserialise g = lit "N[" ++ join 59%N (map NI (sort_by NK (cov_nodes g))) ++ lit "]|E["
                 ++ join 59%N (map DEI (sort_by DEK (dcov_edges g))) ++ lit "]".
Proof.
  unfold dserialise, ser_nodes, dser_edges, cov_nodes, dcov_edges.
  rewrite <- map_cov_sort_nodes, <- map_dcov_sort_edges, !map_map.
  rewrite (map_ext node_item (fun x => NI (covn x))) by (intros; apply node_item_cov).
  rewrite (map_ext dedge_item (fun x => DEI (dcove x))) by (intros; apply dedge_item_cov).
  reflexivity.
Qed.

Lemma app_tail2 {A} (l l' : list A) a b a' b' : l ++ [a; b] = l' ++ [a'; b'] -> a = a' /\ b = b'.
Proof.
  intros E. change [a; b] with ([a] ++ [b]) in E. change [a'; b'] with ([a'] ++ [b']) in E.
  rewrite !app_assoc in E. apply app_inj_tail in E. destruct E as [E ->]. apply app_inj_tail in E. destruct E as [_ ->]. auto.
Qed.
Lemma DEK_inj_dsimple g : dsimple g -> forall x y, In x (dcov_edges g) -> In y (dcov_edges g) -> DEK x = DEK y -> x = y.
Proof.
  intros [_ Hs] [[u v] [[o t] s]] [[u' v'] [[o' t'] s']] Hx Hy E.
  apply (NoDup_map_key_inj fst _ Hs); auto.
  unfold DEK in E. apply app_tail2 in E. destruct E as [E1 E2]. apply N2Z.inj in E1, E2. subst. reflexivity.
Qed.

Theorem dserialise_dgeq_cov g h : dsimple g -> dgeq_cov g h -> dserialise g = dserialise h.
Proof.
  intros Hs [H1 H2]. rewrite !dserialise_cov.
  rewrite (sort_by_perm_eq NK _ _ H1).
  - rewrite (sort_by_perm_eq DEK _ _ H2); [reflexivity|]. apply DEK_inj_dsimple. exact Hs.
  - apply NK_inj_ids. rewrite <- node_ids_cov. apply Hs.
Qed.

(* ---------------- relabelling, rebuilding ---------------- *)
Definition dre (f : N -> N) (c : N * N * ecv) : N * N * ecv := let '(a, b, x) := c in (f a, f b, x).
Lemma dcov_edges_relabel f (g : graph) : dcov_edges (relabel f g) = map (dre f) (dcov_edges g).
Proof. unfold dcov_edges, relabel. cbn [gedges]. rewrite !map_map. apply map_ext. intros [[a b] x]. reflexivity. Qed.
Lemma relabel_dgeq_cov f g h : dgeq_cov g h -> dgeq_cov (relabel f g) (relabel f h).
Proof.
  intros [H1 H2]. split.
  - rewrite !cov_nodes_relabel. apply Permutation_map. exact H1.
  - rewrite !dcov_edges_relabel. apply Permutation_map. exact H2.
Qed.
Lemma dsimple_relabel f g : dwf g -> C08_Spec.inj_on f (node_ids g) -> dsimple (relabel f g).
Proof.
  intros Hw Hi. split.
  - rewrite node_ids_relabel. apply inj_on_NoDup_map; auto. apply Hw.
  - rewrite dcov_edges_relabel. unfold dcov_edges. rewrite !map_map.
    pose proof (proj2 (dwf_dsimple g Hw)) as Hk. unfold dcov_edges in Hk. rewrite map_map in Hk.
    revert Hk. apply NoDup_map_transfer. intros [[a b] x] [[c d] y] I1 I2 E.
    destruct Hw as (_ & Hend & _).
    destruct (Hend _ _ _ I1) as (Ha & Hb & _), (Hend _ _ _ I2) as (Hc & Hd & _).
    cbn in E |- *. inversion E as [[E1 E2]]. f_equal; apply Hi; auto.
Qed.

Lemma perm_edges_dgeq_cov (cg r : graph) : Permutation (gnodes cg) (gnodes r) -> gedges cg = gedges r -> dgeq_cov cg r.
Proof.
  intros H1 H2. split; [apply Permutation_map; exact H1|]. unfold dcov_edges. rewrite H2. apply Permutation_refl.
Qed.
Lemma faithful_dgeq_cov g cg : faithful g cg -> exists f, C08_Spec.inj_on f (node_ids g) /\ dgeq_cov cg (relabel f g).
Proof. intros (f & Hi & H1 & H2). exists f. split; auto. apply perm_edges_dgeq_cov; auto. Qed.
Lemma rebuild_dgeq_cov (g : graph) order : NoDup (node_ids g) -> Permutation order (node_ids g) ->
  C08_Spec.inj_on (apply_map (mapping_of order)) (node_ids g) /\
  dgeq_cov (rebuild g order) (relabel (apply_map (mapping_of order)) g).
Proof.
  intros Hnd Hp.
  split.
  - apply ix_inj_on; auto.
  - apply perm_edges_dgeq_cov; [|reflexivity].
    unfold rebuild. cbn [gnodes]. rewrite gnodes_relabel_as_ids by auto. apply Permutation_map. exact Hp.
Qed.

Lemma drebuild_same_order g h order : dwf g -> dwf h -> dgeq_cov g h -> Permutation order (node_ids g) ->
  dserialise (rebuild g order) = dserialise (rebuild h order).
Proof.
  intros Hg Hh Hq Hp.
  assert (Hp' : Permutation order (node_ids h)) by (eapply perm_trans; [exact Hp|apply dgeq_cov_ids; auto]).
  destruct (rebuild_dgeq_cov g order (proj1 Hg) Hp) as [Hi Hr].
  destruct (rebuild_dgeq_cov h order (proj1 Hh) Hp') as [Hi' Hr'].
  apply dserialise_dgeq_cov.
  - eapply dsimple_dgeq_cov; [apply dgeq_cov_sym; exact Hr|]. apply dsimple_relabel; auto.
  - eapply dgeq_cov_trans; [exact Hr|]. eapply dgeq_cov_trans; [apply relabel_dgeq_cov; exact Hq|]. apply dgeq_cov_sym. exact Hr'.
Qed.

(* ---------------- attribute-sort back-end ---------------- *)
Theorem dsig_function_generic g h : dwf g -> dwf h -> dgeq_cov g h -> dser_generic g = dser_generic h.
Proof.
  intros Hg Hh Hq. unfold dser_generic, canon_generic.
  rewrite <- (generic_order_eq g h (proj1 Hg) (proj1 Hq)).
  apply drebuild_same_order; auto. apply generic_order_perm.
Qed.

(* ---------------- wl / morgan: any ranking; g.degree of a DiGraph = in-degree + out-degree = [degree] ---------------- *)
Lemma inc1_dcov v e : map ce (inc1 v e) = incc v (dcove e).
Proof. destruct e as [[a b] x]. unfold inc1, incc, dcove. rewrite map_app. destruct (N.eqb a v), (N.eqb b v); reflexivity. Qed.
Lemma flat_map_map_l {X Y Z} (f : Y -> list Z) (k : X -> Y) l : flat_map f (map k l) = flat_map (fun x => f (k x)) l.
Proof. induction l as [|x l IH]; simpl; auto. rewrite IH. reflexivity. Qed.
Lemma map_flat_map_l {X Y Z} (k : Y -> Z) (f : X -> list Y) l : map k (flat_map f l) = flat_map (fun x => map k (f x)) l.
Proof. induction l as [|x l IH]; simpl; auto. rewrite map_app, IH. reflexivity. Qed.
Lemma inc_dcov g v : map ce (inc g v) = flat_map (incc v) (dcov_edges g).
Proof.
  rewrite inc_flat. unfold dcov_edges. rewrite flat_map_map_l, map_flat_map_l.
  apply flat_map_ext. intros e. apply inc1_dcov.
Qed.
Lemma degree_dgeq_cov g h v : dgeq_cov g h -> degree g v = degree h v.
Proof.
  intros [_ H]. unfold degree. f_equal.
  assert (P : Permutation (map ce (inc g v)) (map ce (inc h v))) by (rewrite !inc_dcov; apply Permutation_flat_map; exact H).
  apply Permutation_length in P. rewrite !map_length in P. exact P.
Qed.
Theorem dsig_function_rank ranks g h : dwf g -> dwf h -> dgeq_cov g h -> dser_rank ranks g = dser_rank ranks h.
Proof.
  intros Hg Hh Hq. unfold dser_rank, canon_rank.
  rewrite (rank_order_eq ranks g h (fun v => degree_dgeq_cov g h v Hq) (dgeq_cov_ids g h Hq)).
  apply drebuild_same_order; auto. apply sort_by_perm.
Qed.

(* ---------------- the serialisation determines the covered digraph ---------------- *)
Lemma DEI_form u v o t s : DEI (u, v, (o, t, s)) =
  40%N :: decN u ++ 44%N :: 32%N :: decN v ++ 41%N :: 58%N :: 40%N :: 40%N :: decN (N.min u v) ++ 44%N :: 32%N :: decN (N.max u v) ++ 41%N :: 44%N :: 32%N ::
  OS o t ++ 44%N :: 32%N :: (match s with Some s => fl s | None => [48%N] end) ++ [41%N].
Proof.
  unfold DEI, sep2.
  change (lit ":") with [58%N]. change (lit "(") with [40%N]. change (lit ", ") with [44%N; 32%N]. change (lit ")") with [41%N].
  change (lit "0") with [48%N].
  rewrite <- ?app_assoc. cbn [app]. rewrite <- ?app_assoc. reflexivity.
Qed.
Lemma DEI_inj c1 c2 : DEI c1 = DEI c2 -> c1 = c2.
Proof.
  destruct c1 as [[u v] [[o t] s]], c2 as [[u' v'] [[o' t'] s']]. intros E. rewrite !DEI_form in E.
  inversion E as [E1]. clear E.
  apply app_sep_inj in E1; [|nosep|nosep]. destruct E1 as [E1 E]. apply decN_inj in E1. inversion E as [E2]. clear E.
  apply app_sep_inj in E2; [|nosep|nosep]. destruct E2 as [E2 E]. apply decN_inj in E2. subst u' v'.
  inversion E as [E3]. clear E.
  apply app_inv_head in E3. inversion E3 as [E4]. clear E3.
  apply app_inv_head in E4. inversion E4 as [E5]. clear E4.
  apply OS_comma_inj in E5. destruct E5 as (-> & -> & E).
  inversion E as [E6]. clear E. apply app_inj_tail in E6. destruct E6 as [E6 _].
  destruct s as [s|], s' as [s'|].
  - apply fl_inj in E6. subst. reflexivity.
  - exfalso. apply (fl_not_zero _ E6).
  - exfalso. symmetry in E6. apply (fl_not_zero _ E6).
  - reflexivity.
Qed.
Lemma DEI_nosep c : nosep 59%N (DEI c).
Proof.
  destruct c as [[u v] [[o t] s]]. rewrite DEI_form. pose proof (OS_nosep o t 59%N (or_intror (or_introl eq_refl))) as H.
  destruct s; nosep.
Qed.
Lemma DEI_not_nil c : DEI c <> [].
Proof. destruct c as [[u v] [[o t] s]]. rewrite DEI_form. discriminate. Qed.

Theorem dserialise_inj_cov g h : els_ok g -> els_ok h -> dserialise g = dserialise h ->
  sort_by NK (cov_nodes g) = sort_by NK (cov_nodes h) /\ sort_by DEK (dcov_edges g) = sort_by DEK (dcov_edges h).
Proof.
  intros Hg Hh E. rewrite !dserialise_cov in E. revert E.
  apply (ser_text_inj DEI); auto using DEI_inj, DEI_nosep, DEI_not_nil; apply sort_by_Forall, cov_nodes_ok; assumption.
Qed.
Theorem dserialise_inj g h : els_ok g -> els_ok h -> dserialise g = dserialise h -> dgeq_cov g h.
Proof.
  intros Hg Hh E. destruct (dserialise_inj_cov g h Hg Hh E) as [E1 E2]. split.
  - eapply perm_trans; [apply Permutation_sym, (sort_by_perm NK)|]. rewrite E1. apply sort_by_perm.
  - eapply perm_trans; [apply Permutation_sym, (sort_by_perm DEK)|]. rewrite E2. apply sort_by_perm.
Qed.

(* ---------------- soundness ---------------- *)
Lemma drelabel_id_on f (g : graph) : dwf g -> (forall x, In x (node_ids g) -> f x = x) -> relabel f g = g.
Proof. intros Hg Hf. rewrite (relabel_ext_ends f (fun x => x) g (proj1 (proj2 Hg)) Hf). apply relabel_id. Qed.
Lemma dcov_laws : renum_laws dwf dgeq_cov.
Proof.
  split; [exact drelabel_id_on|exact dgeq_cov_refl|exact dgeq_cov_sym|exact dgeq_cov_trans|exact relabel_dgeq_cov|exact dgeq_cov_ids].
Qed.
Lemma dcommon_form_map g h f f' : dwf h -> C08_Spec.inj_on f (node_ids g) -> C08_Spec.inj_on f' (node_ids h) ->
  dgeq_cov (relabel f g) (relabel f' h) ->
  C08_Spec.inj_on (fun x => inv_on f' (node_ids h) (f x)) (node_ids g) /\
  dgeq_cov (relabel (fun x => inv_on f' (node_ids h) (f x)) g) h.
Proof. exact (common_form_by _ _ dcov_laws g h f f'). Qed.
Theorem dcommon_form_iso g h f f' : dwf g -> dwf h -> C08_Spec.inj_on f (node_ids g) -> C08_Spec.inj_on f' (node_ids h) ->
  dgeq_cov (relabel f g) (relabel f' h) -> diso_cov g h.
Proof. intros _ Hh Hi Hi' Hq. eexists. apply (dcommon_form_map g h f f'); auto. Qed.
Theorem dsound_faithful g h cg ch : dwf g -> dwf h -> els_ok g -> els_ok h -> faithful g cg -> faithful h ch ->
  dserialise cg = dserialise ch -> diso_cov g h.
Proof.
  intros Hg Hh Eg Eh Fg Fh E.
  pose proof (dserialise_inj cg ch (faithful_els_ok _ _ Fg Eg) (faithful_els_ok _ _ Fh Eh) E) as Hq.
  destruct (faithful_dgeq_cov _ _ Fg) as (f & Hi & H1). destruct (faithful_dgeq_cov _ _ Fh) as (f' & Hi' & H2).
  apply (dcommon_form_iso g h f f'); auto.
  eapply dgeq_cov_trans; [apply dgeq_cov_sym; exact H1|]. eapply dgeq_cov_trans; [exact Hq|exact H2].
Qed.

Theorem dsignature_function_generic (D : Type) (digest : str -> D) g h : dwf g -> dwf h -> dgeq_cov g h ->
  digest (dserialise (canon_generic g)) = digest (dserialise (canon_generic h)).
Proof. intros Hg Hh Hq. exact (f_equal digest (dsig_function_generic g h Hg Hh Hq)). Qed.
Theorem dsignature_function_rank (D : Type) (digest : str -> D) ranks g h : dwf g -> dwf h -> dgeq_cov g h ->
  digest (dserialise (canon_rank ranks g)) = digest (dserialise (canon_rank ranks h)).
Proof. intros Hg Hh Hq. exact (f_equal digest (dsig_function_rank ranks g h Hg Hh Hq)). Qed.
Theorem dsignature_sound_generic (D : Type) (digest : str -> D) g h : dwf g -> dwf h -> els_ok g -> els_ok h ->
  (digest (dserialise (canon_generic g)) = digest (dserialise (canon_generic h)) ->
   dserialise (canon_generic g) = dserialise (canon_generic h)) ->
  digest (dserialise (canon_generic g)) = digest (dserialise (canon_generic h)) -> diso_cov g h.
Proof.
  intros Hg Hh Eg Eh Hd E. apply (dsound_faithful g h (canon_generic g) (canon_generic h)); auto.
  - apply faithful_generic. apply Hg.
  - apply faithful_generic. apply Hh.
Qed.
Theorem dsignature_sound_rank (D : Type) (digest : str -> D) r r' g h : dwf g -> dwf h -> els_ok g -> els_ok h ->
  (digest (dserialise (canon_rank r g)) = digest (dserialise (canon_rank r' h)) ->
   dserialise (canon_rank r g) = dserialise (canon_rank r' h)) ->
  digest (dserialise (canon_rank r g)) = digest (dserialise (canon_rank r' h)) -> diso_cov g h.
Proof.
  intros Hg Hh Eg Eh Hd E. apply (dsound_faithful g h (canon_rank r g) (canon_rank r' h)); auto.
  - apply faithful_rank. apply Hg.
  - apply faithful_rank. apply Hh.
Qed.

(* ---------------- a boolean test for concrete digraphs ---------------- *)
Fixpoint nodup_arcsb (l : list (N * N)) : bool :=
  match l with
  | [] => true
  | p :: r => negb (existsb (fun q => N.eqb (fst q) (fst p) && N.eqb (snd q) (snd p)) r) && nodup_arcsb r
  end.
Lemma nodup_arcsb_sound l : nodup_arcsb l = true -> NoDup l.
Proof.
  induction l as [|[a b] r IH]; simpl; intros H; constructor; apply andb_prop in H; destruct H as [H1 H2]; auto.
  intro I. apply negb_true_iff, not_true_iff_false in H1. apply H1. apply existsb_exists.
  exists (a, b). split; [exact I|]. simpl. rewrite !N.eqb_refl. reflexivity.
Qed.
Definition arcs_okb (ids : list N) (es : list (N * N * eattr)) : bool :=
  forallb (fun e => mem (fst (fst e)) ids && mem (snd (fst e)) ids && negb (N.eqb (fst (fst e)) (snd (fst e)))) es.
Definition dwfb (g : graph) : bool :=
  nodupb (node_ids g) && arcs_okb (node_ids g) (gedges g) && nodup_arcsb (map fst (gedges g)).
Lemma dwfb_sound g : dwfb g = true -> dwf g.
Proof.
  unfold dwfb. rewrite !andb_true_iff. intros [[H1 H2] H3]. split; [apply nodupb_sound; exact H1|]. split.
  - intros a b x I. unfold arcs_okb in H2. rewrite forallb_forall in H2. specialize (H2 _ I). cbn [fst snd] in H2.
    rewrite !andb_true_iff, !mem_spec, negb_true_iff, N.eqb_neq in H2. tauto.
  - apply nodup_arcsb_sound. exact H3.
Qed.

(* ---------------- non-vacuity ---------------- *)
(* a digraph with an antiparallel pair of equal arcs, presented with another insertion order of nodes and arcs:
   same signature; the digraph with one arc turned round: another serialisation although the UNDIRECTED covered
   views coincide (seeded change C08-w3-2 printed the end points sorted: the two strings became equal) *)
Definition ds_g : graph :=
  LG [(1%N, NA [67%N] false 0 0 None); (2%N, NA [67%N] false 0 0 None); (3%N, NA [79%N] false 0 0 None)]
     [(1%N, 2%N, EA 2 None); (2%N, 1%N, EA 2 None); (2%N, 3%N, EA 2 None)].
Definition ds_h : graph :=
  LG [(3%N, NA [79%N] false 0 0 None); (2%N, NA [67%N] false 0 0 (Some 5%Z)); (1%N, NA [67%N] false 0 0 None)]
     [(2%N, 3%N, EA 2 None); (2%N, 1%N, EA 2 None); (1%N, 2%N, EA 2 None)].
Definition ds_m : graph :=
  LG [(1%N, NA [67%N] false 0 0 None); (2%N, NA [67%N] false 0 0 None); (3%N, NA [79%N] false 0 0 None)]
     [(1%N, 2%N, EA 2 None); (2%N, 1%N, EA 2 None); (3%N, 2%N, EA 2 None)].
Example ds_ex : dwf ds_g /\ dwf ds_h /\ dgeq_cov ds_g ds_h /\ gedges ds_g <> gedges ds_h
                /\ dser_generic ds_g = dser_generic ds_h
                /\ dser_generic ds_g <> dser_generic ds_m /\ geq_cov ds_g ds_m.
Proof.
  split; [apply dwfb_sound; reflexivity|]. split; [apply dwfb_sound; reflexivity|]. split; [|split; [discriminate|]].
  - split; vm_compute.
    + eapply perm_trans; [apply perm_swap|]. eapply perm_trans; [apply perm_skip; apply perm_swap|]. apply perm_swap.
    + eapply perm_trans; [apply perm_swap|]. eapply perm_trans; [apply perm_skip; apply perm_swap|]. apply perm_swap.
  - split; [vm_compute; reflexivity|]. split; [vm_compute; discriminate|].
    split; vm_compute; apply Permutation_refl.
Qed.

Print Assumptions dserialise_dgeq_cov.
Print Assumptions dserialise_inj.
Print Assumptions dsignature_function_generic.
Print Assumptions dsignature_function_rank.
Print Assumptions dsignature_sound_generic.
Print Assumptions dsignature_sound_rank.
