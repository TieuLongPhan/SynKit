(** C11 — VF2 as an explicit premise, in the form networkx actually delivers the maps: dictionaries whose item
    order is not specified.  Any list of maps that (i) contains only automorphisms, (ii) contains every
    automorphism, (iii) contains none twice — all three up to the order of the items inside a map — yields
    exactly the analysis of the model.  Stdlib lists. *)
From Coq Require Import List NArith Lia.
From SK Require Import lib.LGraph model.C11_Model proof.C11_Aut proof.C11_Main.
Import ListNotations.

Definition same_items (m m' : mapping) : Prop := forall ph, In ph m <-> In ph m'.

Lemma same_items_refl m : same_items m m.
Proof. intros ph. tauto. Qed.
Lemma same_items_sym m m' : same_items m m' -> same_items m' m.
Proof. intros H ph. symmetry. apply H. Qed.
Lemma same_items_trans a b c : same_items a b -> same_items b c -> same_items a c.
Proof. intros H1 H2 ph. rewrite (H1 ph). apply H2. Qed.

(** no two members are related *)
Fixpoint nodupR {X} (R : X -> X -> Prop) (l : list X) : Prop :=
  match l with
  | [] => True
  | x :: r => (forall y, In y r -> ~ R x y) /\ nodupR R r
  end.

Section Matching.
Variable X : Type.
Variable R : X -> X -> Prop.
Hypothesis Rsym : forall x y, R x y -> R y x.
Hypothesis Rtrans : forall x y z, R x y -> R y z -> R x z.

Lemma nodupR_remove l1 a l2 : nodupR R (l1 ++ a :: l2) ->
  nodupR R (l1 ++ l2) /\ forall y, In y (l1 ++ l2) -> ~ R a y.
Proof.
  induction l1 as [|x l1 IH]; simpl.
  - intros [H1 H2]. split; assumption.
  - intros [H1 H2]. destruct (IH H2) as [H3 H4]. split.
    + split; [|exact H3]. intros y Hy. apply H1. apply in_app_or in Hy. apply in_or_app.
      destruct Hy as [Hy|Hy]; [left; exact Hy | right; right; exact Hy].
    + intros y [<-|Hy]; [|apply H4; exact Hy].
      intros Hr. apply (H1 a); [apply in_or_app; right; left; reflexivity | apply Rsym; exact Hr].
Qed.

Lemma length_by_matching : forall E A,
  nodupR R E -> nodupR R A ->
  (forall e, In e E -> exists a, In a A /\ R e a) ->
  (forall a, In a A -> exists e, In e E /\ R a e) ->
  length E = length A.
Proof.
  induction E as [|e E IH]; intros A HE HA H1 H2.
  - destruct A as [|a A]; [reflexivity|]. destruct (H2 a (or_introl eq_refl)) as (e & [] & _).
  - destruct (H1 e (or_introl eq_refl)) as (a & Ha & Rea).
    destruct (in_split _ _ Ha) as (A1 & A2 & ->).
    destruct (nodupR_remove A1 a A2 HA) as [HA' Hna].
    simpl in HE. destruct HE as [Hne HE'].
    rewrite app_length. simpl. rewrite <- plus_n_Sm, <- app_length. f_equal.
    apply IH; auto.
    + intros e' He'. destruct (H1 e' (or_intror He')) as (a' & Ha' & Re'a').
      exists a'. split; [|exact Re'a'].
      apply in_app_or in Ha'. apply in_or_app. destruct Ha' as [Ha'|[<-|Ha']]; auto.
      exfalso. apply (Hne e' He'). eapply Rtrans; [exact Rea | apply Rsym; exact Re'a'].
    + intros a' Ha'. assert (Ha'' : In a' (A1 ++ a :: A2)).
      { apply in_app_or in Ha'. apply in_or_app. destruct Ha' as [Ha'|Ha']; [left | right; right]; exact Ha'. }
      destruct (H2 a' Ha'') as (e' & [<-|He'] & Ra'e'); [|eauto].
      exfalso. apply (Hna a' Ha'). eapply Rtrans; [apply Rsym; exact Rea | apply Rsym; exact Ra'e'].
Qed.
End Matching.

Lemma orbit_set_items (E1 E2 : list mapping) u :
  (forall m, In m E1 -> exists m', In m' E2 /\ same_items m m') ->
  (forall m, In m E2 -> exists m', In m' E1 /\ same_items m m') ->
  orbit_set E1 u = orbit_set E2 u.
Proof.
  intros H1 H2. unfold orbit_set. apply canonN_ext. intros y. rewrite !orbit_raw_in. split.
  - intros (m & Hm & Hc). destruct (H1 m Hm) as (m' & Hm' & S). exists m'. split; [exact Hm'|].
    destruct Hc as [Hc|Hc]; [left | right]; apply S; exact Hc.
  - intros (m & Hm & Hc). destruct (H2 m Hm) as (m' & Hm' & S). exists m'. split; [exact Hm'|].
    destruct Hc as [Hc|Hc]; [left | right]; apply S; exact Hc.
Qed.

(** distinct listed automorphisms differ in some item *)
Lemma NoDup_nodupR fn fe (g : graph) L : simple_graph g -> NoDup L -> (forall m, In m L -> In m (auts fn fe g)) ->
  nodupR same_items L.
Proof.
  intros Hg Hnd Hsub.
  assert (Heq : forall m m', In m (auts fn fe g) -> In m' (auts fn fe g) -> same_items m m' -> m = m').
  { intros m m' Hm Hm' S. apply (auts_listing fn fe g Hg) in Hm. apply (auts_listing fn fe g Hg) in Hm'.
    destruct Hm as (s & Hs & ->). destruct Hm' as (s' & Hs' & ->). unfold aut_pairs. f_equal.
    apply map_ext_in. intros u Hu. f_equal.
    assert (Hin : In (u, s u) (aut_pairs g s')).
    { apply S. unfold aut_pairs. rewrite <- in_rev. apply in_map_iff. exists u. auto. }
    unfold aut_pairs in Hin. rewrite <- in_rev in Hin. apply in_map_iff in Hin.
    destruct Hin as (x & E & _). inversion E; subst. reflexivity. }
  induction Hnd as [|a l Hn Hnd' IH]; simpl; [exact Logic.I|]. split.
  - intros y Hy S. apply Hn. rewrite (Heq a y (Hsub a (or_introl eq_refl)) (Hsub y (or_intror Hy)) S). exact Hy.
  - apply IH. intros m Hm. apply Hsub. right. exact Hm.
Qed.

Lemma vf2_contract_items fn fe (g : graph) (E : list mapping) : simple_graph g ->
  (forall m, In m E -> exists s, is_automorphism fn fe g s /\ same_items m (aut_pairs g s)) ->
  (forall s, is_automorphism fn fe g s -> exists m, In m E /\ same_items m (aut_pairs g s)) ->
  nodupR same_items E ->
  analyze_component_with (node_ids g) E = analyze_component fn fe g /\
  length E = length (auts fn fe g).
Proof.
  intros Hg Hsound Hcompl Hnd.
  assert (H1 : forall m, In m E -> exists m', In m' (auts fn fe g) /\ same_items m m').
  { intros m Hm. destruct (Hsound m Hm) as (s & Hs & S). exists (aut_pairs g s). split; [|exact S].
    apply (auts_listing fn fe g Hg). eauto. }
  assert (H2 : forall m, In m (auts fn fe g) -> exists m', In m' E /\ same_items m m').
  { intros m Hm. apply (auts_listing fn fe g Hg) in Hm. destruct Hm as (s & Hs & ->).
    destruct (Hcompl s Hs) as (m' & Hm' & S). exists m'. split; [exact Hm' | apply same_items_sym; exact S]. }
  assert (Hlen : length E = length (auts fn fe g)).
  { apply (length_by_matching mapping same_items same_items_sym same_items_trans); auto.
    exact (NoDup_nodupR fn fe g _ Hg (auts_nodup fn fe g Hg) (fun m H => H)). }
  split; [|exact Hlen].
  rewrite analyze_component_with_auts. apply analyze_component_with_ext; [exact Hlen|].
  intros u. apply orbit_set_items; assumption.
Qed.

(** in particular any duplicate-free listing of exactly the automorphisms, each in the model's item order *)
Lemma vf2_contract_suffices fn fe (g : graph) (E : list mapping) : simple_graph g ->
  NoDup E ->
  (forall m, In m E <-> exists s, is_automorphism fn fe g s /\ m = aut_pairs g s) ->
  analyze_component_with (node_ids g) E = analyze_component fn fe g /\
  length E = length (auts fn fe g).
Proof.
  intros Hg Hnd Hspec. apply vf2_contract_items; [exact Hg | | |].
  - intros m Hm. apply Hspec in Hm. destruct Hm as (s & Hs & ->). exists s. split; [exact Hs | apply same_items_refl].
  - intros s Hs. exists (aut_pairs g s). split; [apply Hspec; eauto | apply same_items_refl].
  - apply (NoDup_nodupR fn fe g E Hg Hnd). intros m Hm. apply (auts_listing fn fe g Hg), Hspec, Hm.
Qed.

(** non-vacuity: the model's list with the items of every map reversed and the maps in the opposite order *)
Example ex_vf2_items :
  let E := rev (map (@rev (N * N)) (auts n_exact e_order ex_path)) in
  E = [[(1, 3); (2, 2); (3, 1)]; [(1, 1); (2, 2); (3, 3)]]%N /\
  nodupR same_items E /\
  (forall m, In m E -> exists s, is_automorphism n_exact e_order ex_path s /\ same_items m (aut_pairs ex_path s)) /\
  analyze_component_with (node_ids ex_path) E = ([[2]; [1; 3]]%N, 2%N).
Proof.
  pose proof (wf_simple _ ex_path_wf) as Hg.
  split; [vm_compute; reflexivity|]. split; [|split; [|vm_compute; reflexivity]].
  - vm_compute. split; [|split; [intros ? []|exact Logic.I]].
    intros y [<-|[]] S. specialize (S (1, 3)%N).
    assert (H : (1, 1)%N = (1, 3)%N \/ (2, 2)%N = (1, 3)%N \/ (3, 3)%N = (1, 3)%N \/ False) by (apply S; left; reflexivity).
    clear S. destruct H as [H|[H|[H|[]]]]; discriminate.
  - intros m Hm. rewrite <- in_rev in Hm. apply in_map_iff in Hm. destruct Hm as (a & <- & Ha).
    apply (auts_listing n_exact e_order ex_path Hg) in Ha. destruct Ha as (s & Hs & ->).
    exists s. split; [exact Hs|]. intros ph. symmetry. apply in_rev.
Qed.
