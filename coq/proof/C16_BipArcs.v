(** C16 — deleting `stoich` / `role` from every arc of an exported bipartite graph gives exactly the graph the
    exporter builds with include_stoich / include_role switched off: the deletion commutes with every step of the export. *)
From stdpp Require Import gmap strings sets pretty sorting.
From SK Require Import lib.Tok model.C15_Model model.C16_Model model.C16_Edit.
Local Open Scope string_scope.
Local Open Scope list_scope.

Definition arcs_only (d : drops) : drops := Drops false false false false (d_stoich d) (d_role d) false false.
Definition nodes_only (d : drops) : drops :=
  Drops (d_kind_sp d) (d_kind_rx d) (d_label_sp d) (d_label_rx d) false false (d_mol d) (d_marker d).
(** the export flags after the deletion *)
Definition fl_drop (fl : bflags) (d : drops) : bflags :=
  BFlags (f_sp fl) (f_rp fl) (f_bv_s fl) (f_bv_r fl) (f_stoich fl && negb (d_stoich d)) (f_role fl && negb (d_role d))
         (f_isolated fl) (f_int fl) (f_eid fl) (f_mol fl).
Definition drop_est (d : drops) (st : est) : est := Est (e_nodes st) (drop_arc d <$> e_arcs st) (e_smap st) (e_next st).

Lemma drop_arc_attrs fl d c role : drop_arc d (arc_attrs fl c role) = arc_attrs (fl_drop fl d) c role.
Proof. unfold drop_arc, arc_attrs, fl_drop. cbn. destruct (f_stoich fl), (f_role fl), (d_stoich d), (d_role d); reflexivity. Qed.
Lemma drop_arc_upd d a old : drop_arc d (barc_upd a old) = barc_upd (drop_arc d a) (drop_arc d old).
Proof.
  destruct a as [s1 r1], old as [s2 r2]. unfold drop_arc, barc_upd, opt_upd. cbn.
  destruct (d_stoich d), (d_role d), s1, r1, s2, r2; reflexivity.
Qed.
Lemma drop_arc_empty d : drop_arc d (BArc None None) = BArc None None.
Proof. unfold drop_arc. cbn. destruct (d_stoich d), (d_role d); reflexivity. Qed.
Lemma add_arc_drop d st u v a : add_arc (drop_est d st) u v (drop_arc d a) = drop_est d (add_arc st u v a).
Proof.
  unfold add_arc, drop_est. cbn. f_equal. rewrite lookup_fmap, fmap_insert. f_equal.
  destruct (e_arcs st !! (u, v)) as [old|]; cbn; by rewrite drop_arc_upd, ?drop_arc_empty.
Qed.

Lemma add_sp_node_drop fl d H st s :
  add_sp_node (fl_drop fl d) H (drop_est d st) s = (drop_est d (add_sp_node fl H st s).1, (add_sp_node fl H st s).2).
Proof.
  unfold add_sp_node. cbn [e_smap drop_est e_next e_nodes e_arcs]. destruct (e_smap st !! s); [done|].
  cbn [f_int fl_drop f_sp]. by destruct (f_int fl), (e_nodes st !! _).
Qed.
Lemma add_rxn_node_drop fl d st e rule :
  add_rxn_node (fl_drop fl d) (drop_est d st) e rule = (drop_est d (add_rxn_node fl st e rule).1, (add_rxn_node fl st e rule).2).
Proof. unfold add_rxn_node. cbn. done. Qed.

Lemma foldl_drop {A} (d : drops) (f f' : est → A → est) (l : list A) :
  (∀ st x, f' (drop_est d st) x = drop_est d (f st x)) → ∀ st, foldl f' (drop_est d st) l = drop_est d (foldl f st l).
Proof. intros Hf. induction l as [|x l IH]; intros st; [done|]. cbn. by rewrite Hf, IH. Qed.

Lemma export_rxn_drop fl d H st p : export_rxn (fl_drop fl d) H (drop_est d st) p = drop_est d (export_rxn fl H st p).
Proof.
  unfold export_rxn. rewrite add_rxn_node_drop. destruct (add_rxn_node fl st p.1 (r_rule p.2)) as [st1 rnd]. cbn [fst snd].
  rewrite (foldl_drop d (λ st sc, let '(st', u) := add_sp_node fl H st sc.1 in add_arc st' u rnd (arc_attrs fl sc.2 "reactant"))).
  - apply foldl_drop. intros st' sc. rewrite add_sp_node_drop. destruct (add_sp_node fl H st' sc.1) as [st2 v]. cbn [fst snd].
    by rewrite <-drop_arc_attrs, add_arc_drop.
  - intros st' sc. rewrite add_sp_node_drop. destruct (add_sp_node fl H st' sc.1) as [st2 u]. cbn [fst snd].
    by rewrite <-drop_arc_attrs, add_arc_drop.
Qed.

Lemma drop_node_arcs_only d nd : drop_node (arcs_only d) nd = nd.
Proof. destruct nd. unfold drop_node, arcs_only. cbn. by destruct (is_rx_node _). Qed.

Lemma export_state_drop fl d H : export_state (fl_drop fl d) H = drop_est d (export_state fl H).
Proof.
  unfold export_state. change (species_iter (fl_drop fl d) H) with (species_iter fl H).
  rewrite <-(foldl_drop d (export_rxn fl H) (export_rxn (fl_drop fl d) H)) by (intros; apply export_rxn_drop).
  f_equal.
  rewrite <-(foldl_drop d (λ st s, (add_sp_node fl H st s).1) (λ st s, (add_sp_node (fl_drop fl d) H st s).1)).
  2:{ intros st s. by rewrite add_sp_node_drop. }
  f_equal. unfold drop_est. cbn. by rewrite fmap_empty.
Qed.

(** the exporter with the flags switched off builds the exported graph minus the deleted arc attributes *)
Lemma export_drop_arcs fl d H : hypergraph_to_bipartite (fl_drop fl d) H = drop_attrs (arcs_only d) (hypergraph_to_bipartite fl H).
Proof.
  unfold hypergraph_to_bipartite. rewrite export_state_drop. unfold drop_attrs, drop_est. cbn [b_nodes b_arcs e_nodes e_arcs]. f_equal.
  rewrite (map_fmap_ext _ id); [by rewrite map_fmap_id|]. intros ? nd _. apply drop_node_arcs_only.
Qed.

(** any deletion = the arc part first, then the node part *)
Lemma drop_split d G : drop_attrs d G = drop_attrs (nodes_only d) (drop_attrs (arcs_only d) G).
Proof.
  unfold drop_attrs. cbn [b_nodes b_arcs]. f_equal; rewrite <-map_fmap_compose; apply map_fmap_ext; intros ? x _; cbn.
  - rewrite drop_node_arcs_only. destruct x. unfold drop_node, nodes_only. cbn. done.
  - destruct x. unfold drop_arc, nodes_only, arcs_only. cbn. by destruct (d_stoich d), (d_role d).
Qed.

(** non-vacuity: a catalyst (two arcs between one pair of nodes), coefficients 2 and 12, both attributes deleted *)
Definition exa_net : net :=
  mk_net ["K"] [(None, "r", [("A", 2%Z)], [("B", 1%Z); ("A", 1%Z)]); (Some "x", "q", [("B", 1%Z)], [("C", 12%Z)])] [("A", "CCO")].
Definition exa_fl : bflags := BFlags (Some "S:") (Some "R:") 0 1 true true true false true true.
Definition exa_d : drops := Drops false false false false true true false false.
Example ex_drop_arcs_flag :
  size (b_arcs (hypergraph_to_bipartite exa_fl exa_net)) = 5%nat ∧
  tbgraph (hypergraph_to_bipartite (fl_drop exa_fl exa_d) exa_net) = tbgraph (drop_attrs (arcs_only exa_d) (hypergraph_to_bipartite exa_fl exa_net)) ∧
  tbgraph (hypergraph_to_bipartite (fl_drop exa_fl exa_d) exa_net) ≠ tbgraph (hypergraph_to_bipartite exa_fl exa_net).
Proof. split_and!; [by vm_compute|by vm_compute|]. intros Hq. vm_compute in Hq. discriminate Hq. Qed.
