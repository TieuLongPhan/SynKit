(** C09 — list-level facts: the dictionary / relabelling idioms of CanonRSMI.canonicalise (dict comprehensions, sorted key
    intersections, nx.relabel_nodes), sorted lists of node ids, combine / filter. *)
From Coq Require Import List NArith ZArith Bool Arith Lia Permutation.
From SK Require Import lib.LGraph lib.C01_GraphLemmas model.C01_Model model.C09_Model.
Import ListNotations.
Local Open Scope Z_scope.

Lemma set_val_new {V} (k : N) (v : V) l : ~ In k (map fst l) -> set_val k v l = l ++ [(k, v)].
Proof.
  induction l as [|[k' v'] r IH]; simpl; intros Hn; [reflexivity|].
  destruct (N.eqb_spec k k') as [->|Hne]; [exfalso; apply Hn; left; reflexivity|].
  rewrite IH; [reflexivity|]. intros I. apply Hn. right. exact I.
Qed.

Lemma fold_set_val {X V} (key : X -> N) (val : X -> V) (l : list X) : forall acc,
  NoDup (map fst acc ++ map key l) ->
  fold_left (fun a x => set_val (key x) (val x) a) l acc = acc ++ map (fun x => (key x, val x)) l.
Proof.
  induction l as [|x l IH]; intros acc Hnd; simpl; [rewrite app_nil_r; reflexivity|].
  assert (Hx : ~ In (key x) (map fst acc)).
  { simpl in Hnd. apply NoDup_remove_2 in Hnd. intros I. apply Hnd. apply in_or_app. left. exact I. }
  rewrite (set_val_new _ _ _ Hx). rewrite IH.
  - rewrite <- app_assoc. reflexivity.
  - rewrite map_app. simpl. rewrite <- app_assoc. simpl. exact Hnd.
Qed.

Lemma set_edge_new {B} (u v : N) (x : B) es : find_edge u v es = None -> set_edge u v x es = es ++ [(u, v, x)].
Proof.
  induction es as [|[[a b] y] r IH]; simpl; [reflexivity|].
  destruct ((N.eqb a u && N.eqb b v) || (N.eqb a v && N.eqb b u)); [discriminate|].
  intros H. rewrite IH by exact H. reflexivity.
Qed.

Section NxRelabel.
Variable f : N -> N.
Hypothesis Hinj : forall a b, f a = f b -> a = b.

Lemma nx_relabel_nodes (ns : list (N * gnode)) : NoDup (map fst ns) ->
  fold_left (fun acc (p : N * gnode) => set_val (f (fst p)) (snd p) acc) ns [] = map (fun p => (f (fst p), snd p)) ns.
Proof.
  intros Hnd. rewrite (fold_set_val (fun p : N * gnode => f (fst p)) (fun p => snd p)); [reflexivity|].
  simpl. rewrite <- (map_map fst f). apply FinFun.Injective_map_NoDup; [exact Hinj|exact Hnd].
Qed.

Lemma nx_relabel_edges (es : list (N * N * Z)) :
  (forall l1 a b x l2, es = l1 ++ (a, b, x) :: l2 -> find_edge a b l1 = None) ->
  forall l1 l2, es = l1 ++ l2 ->
  fold_left (fun acc (e : N * N * Z) => let '(a, b, x) := e in set_edge (f a) (f b) x acc) l2
            (map (fun e : N * N * Z => let '(a, b, x) := e in (f a, f b, x)) l1)
  = map (fun e : N * N * Z => let '(a, b, x) := e in (f a, f b, x)) es.
Proof.
  intros Hs l1 l2. revert l1. induction l2 as [|[[a b] x] r IH]; intros l1 E; simpl.
  - rewrite app_nil_r in E. subst. reflexivity.
  - rewrite set_edge_new.
    + specialize (IH (l1 ++ [(a, b, x)])). rewrite map_app in IH. simpl in IH. apply IH.
      rewrite <- app_assoc. exact E.
    + rewrite (find_edge_relabel Hinj). eapply Hs. exact E.
Qed.

Theorem nx_relabel_inj (g : mgraph) : wf g -> nx_relabel f g = relabel f g.
Proof.
  intros (W1 & W2 & W3). unfold nx_relabel, relabel. f_equal.
  - apply nx_relabel_nodes. exact W1.
  - apply (nx_relabel_edges (gedges g)) with (l1 := []); [|reflexivity].
    intros l1 a b x l2 E. apply (W3 l1 a b x l2 E).
Qed.
End NxRelabel.

(** only the values on the nodes and edge endpoints matter *)
Lemma nx_relabel_ext (f g : N -> N) (G : mgraph) :
  (forall n, In n (node_ids G) -> f n = g n) ->
  (forall a b x, In (a, b, x) (gedges G) -> f a = g a /\ f b = g b) ->
  nx_relabel f G = nx_relabel g G.
Proof.
  intros Hn He. unfold nx_relabel. f_equal.
  - unfold node_ids in Hn. generalize (@nil (N * gnode)). induction (gnodes G) as [|p l IH]; intros acc; simpl; [reflexivity|].
    rewrite (Hn (fst p)) by (left; reflexivity). apply IH. intros n I. apply Hn. right. exact I.
  - generalize (@nil (N * N * Z)). induction (gedges G) as [|[[a b] x] l IH]; intros acc; simpl; [reflexivity|].
    destruct (He a b x (or_introl eq_refl)) as [-> ->]. apply IH. intros a' b' x' I. apply (He a' b' x'). right. exact I.
Qed.

Lemma relabel_agree {A B} (f g : N -> N) (G : lgraph A B) : wf G ->
  (forall n, In n (node_ids G) -> f n = g n) -> relabel f G = relabel g G.
Proof.
  intros (_ & W2 & _) Hn. unfold relabel. f_equal.
  - apply map_ext_in. intros p I. rewrite Hn; [reflexivity|]. unfold node_ids. apply in_map. exact I.
  - apply map_ext_in. intros [[a b] x] I. destruct (W2 a b x I) as (Ia & Ib & _). rewrite (Hn a Ia), (Hn b Ib). reflexivity.
Qed.

Lemma nx_relabel_agree (f g : N -> N) (H : mgraph) : (forall a b, g a = g b -> a = b) -> wf H ->
  (forall n, In n (node_ids H) -> f n = g n) -> nx_relabel f H = relabel g H.
Proof.
  intros Ginj WH Hn. rewrite (nx_relabel_ext f g H Hn); [apply (nx_relabel_inj g Ginj H WH)|].
  intros a b x I. destruct WH as (_ & W2 & _). destruct (W2 a b x I) as (Ia & Ib & _). auto.
Qed.

Lemma zset_new {V} (k : Z) (v : V) l : ~ In k (map fst l) -> zset k v l = l ++ [(k, v)].
Proof.
  induction l as [|[k' v'] r IH]; simpl; intros Hn; [reflexivity|].
  destruct (Z.eqb_spec k k') as [->|Hne]; [exfalso; apply Hn; left; reflexivity|].
  rewrite IH; [reflexivity|]. intros I. apply Hn. right. exact I.
Qed.

Lemma amap_table_spec (g : mgraph) :
  (forall p, In p (gnodes g) -> 0 < g_amap (snd p)) -> NoDup (map (fun p : N * gnode => g_amap (snd p)) (gnodes g)) ->
  amap_table g = map (fun p : N * gnode => (g_amap (snd p), fst p)) (gnodes g).
Proof.
  unfold amap_table. intros Hpos Hnd.
  assert (G : forall l acc, (forall p, In p l -> 0 < g_amap (snd p)) ->
             NoDup (map fst acc ++ map (fun p : N * gnode => g_amap (snd p)) l) ->
             fold_left (fun a (p : N * gnode) => if 0 <? g_amap (snd p) then zset (g_amap (snd p)) (fst p) a else a) l acc
             = acc ++ map (fun p : N * gnode => (g_amap (snd p), fst p)) l).
  { induction l as [|x l IH]; intros acc Hp Hn; simpl; [rewrite app_nil_r; reflexivity|].
    assert (Hx : 0 <? g_amap (snd x) = true) by (apply Z.ltb_lt; apply Hp; left; reflexivity). rewrite Hx.
    assert (Hk : ~ In (g_amap (snd x)) (map fst acc)).
    { simpl in Hn. apply NoDup_remove_2 in Hn. intros I. apply Hn. apply in_or_app. left. exact I. }
    rewrite (zset_new _ _ _ Hk). rewrite IH.
    - rewrite <- app_assoc. reflexivity.
    - intros p I. apply Hp. right. exact I.
    - rewrite map_app. simpl. rewrite <- app_assoc. simpl. exact Hn. }
  apply (G (gnodes g) []); auto.
Qed.

Lemma zassoc_in {V} k (l : list (Z * V)) v : zassoc k l = Some v -> In (k, v) l.
Proof.
  induction l as [|[k' v'] r IH]; simpl; [discriminate|].
  destruct (Z.eqb_spec k k') as [->|Hne]; [intros [= ->]; left; reflexivity|]. intros H. right. apply IH. exact H.
Qed.
Lemma zassoc_nodup_in {V} k (l : list (Z * V)) v : NoDup (map fst l) -> In (k, v) l -> zassoc k l = Some v.
Proof.
  induction l as [|[k' v'] r IH]; simpl; [intros _ []|].
  intros Hnd Hin. inversion Hnd as [|? ? Hnotin Hnd']; subst.
  destruct Hin as [E|Hin].
  - inversion E; subst. rewrite Z.eqb_refl. reflexivity.
  - destruct (Z.eqb_spec k k') as [->|Hne].
    + exfalso. apply Hnotin. change k' with (fst (k', v)). apply in_map. exact Hin.
    + apply IH; assumption.
Qed.

Fixpoint zsorted (l : list Z) : Prop :=
  match l with [] => True | x :: r => (forall y, In y r -> x < y) /\ zsorted r end.
Lemma zinsert_in k l x : In x (zinsert k l) <-> x = k \/ In x l.
Proof.
  induction l as [|y r IH]; simpl; [intuition|].
  destruct (k <? y); simpl; [intuition|]. destruct (Z.eqb_spec k y) as [->|Hne]; simpl; [intuition|].
  rewrite IH. intuition.
Qed.
Lemma zinsert_sorted k l : zsorted l -> zsorted (zinsert k l).
Proof.
  induction l as [|y r IH]; simpl; [intuition|]. intros [H1 H2].
  destruct (Z.ltb_spec k y) as [Hlt|Hge]; simpl.
  - split; [|split; auto]. intros z [<-|I]; [exact Hlt|]. specialize (H1 z I). lia.
  - destruct (Z.eqb_spec k y) as [->|Hne]; simpl; [split; auto|].
    split; [|apply IH; exact H2]. intros z I. apply zinsert_in in I. destruct I as [->|I]; [lia|apply H1; exact I].
Qed.
Lemma zsort_in l x : In x (zsort l) <-> In x l.
Proof. induction l as [|y r IH]; simpl; [tauto|]. rewrite zinsert_in, IH. intuition. Qed.
Lemma zsort_sorted l : zsorted (zsort l).
Proof. induction l; simpl; [exact I|apply zinsert_sorted; assumption]. Qed.
Lemma zsorted_nodup l : zsorted l -> NoDup l.
Proof.
  induction l as [|x r IH]; simpl; [constructor|]. intros [H1 H2]. constructor; [|apply IH; exact H2].
  intros I. specialize (H1 x I). lia.
Qed.

(** get_aam_pairwise_indices *)
Lemma aam_pairs_in (G H : mgraph) a b :
  In (a, b) (aam_pairs G H) <-> exists k, zassoc k (amap_table G) = Some a /\ zassoc k (amap_table H) = Some b.
Proof.
  unfold aam_pairs. rewrite in_flat_map. split.
  - intros (k & _ & I). exists k. destruct (zassoc k (amap_table G)), (zassoc k (amap_table H)); try (destruct I; fail).
    destruct I as [E|[]]. inversion E; subst. auto.
  - intros (k & E1 & E2). exists k. split.
    + apply zsort_in. apply zassoc_in in E1. change k with (fst (k, a)). apply in_map. exact E1.
    + rewrite E1, E2. left. reflexivity.
Qed.

Lemma map_flat_map {X Y W} (g : Y -> W) (F : X -> list Y) l : map g (flat_map F l) = flat_map (fun x => map g (F x)) l.
Proof. induction l; simpl; [reflexivity|]. rewrite map_app. congruence. Qed.

Lemma aam_pairs_snd_nodup (G H : mgraph) :
  (forall k k' b, zassoc k (amap_table H) = Some b -> zassoc k' (amap_table H) = Some b -> k = k') ->
  NoDup (map snd (aam_pairs G H)).
Proof.
  intros Hinj. unfold aam_pairs. rewrite map_flat_map. apply Mono.NoDup_flat_map.
  - apply zsorted_nodup. apply zsort_sorted.
  - intros k _. destruct (zassoc k (amap_table G)), (zassoc k (amap_table H)); simpl; repeat constructor; intros [].
  - intros k k' y _ _ I I'.
    destruct (zassoc k (amap_table G)); [|destruct I]. destruct (zassoc k (amap_table H)) eqn:E1; [|destruct I].
    destruct (zassoc k' (amap_table G)); [|destruct I']. destruct (zassoc k' (amap_table H)) eqn:E2; [|destruct I'].
    simpl in I, I'. destruct I as [<-|[]]. destruct I' as [E|[]]. subst. eapply Hinj; eauto.
Qed.

(** mapping = {old: new for new, old in node_map} *)
Definition swap (p : N * N) : N * N := (snd p, fst p).
Lemma remap_mapping_spec (l : list (N * N)) : NoDup (map snd l) -> remap_mapping l = map swap l.
Proof.
  intros Hnd. unfold remap_mapping. rewrite (fold_set_val (fun p : N * N => snd p) (fun p => fst p)); [reflexivity|exact Hnd].
Qed.

(** sorted(...) of node ids *)
Lemma ninsert_perm k l : Permutation (ninsert k l) (k :: l).
Proof.
  induction l as [|x r IH]; simpl; [apply Permutation_refl|]. destruct (N.leb k x); [apply Permutation_refl|].
  eapply Permutation_trans; [apply perm_skip; exact IH|apply perm_swap].
Qed.
Lemma nsort_perm l : Permutation (nsort l) l.
Proof. induction l; simpl; [constructor|]. eapply Permutation_trans; [apply ninsert_perm|apply perm_skip; assumption]. Qed.

Fixpoint nsorted (l : list N) : Prop :=
  match l with [] => True | x :: r => (forall y, In y r -> (x <= y)%N) /\ nsorted r end.
Lemma ninsert_in k l x : In x (ninsert k l) <-> x = k \/ In x l.
Proof.
  split; intros I.
  - apply (Permutation_in _ (ninsert_perm k l)) in I. destruct I; auto.
  - apply (Permutation_in _ (Permutation_sym (ninsert_perm k l))). destruct I; [left|right]; auto.
Qed.
Lemma ninsert_sorted k l : nsorted l -> nsorted (ninsert k l).
Proof.
  induction l as [|y r IH]; simpl; [intuition|]. intros [H1 H2].
  destruct (N.leb_spec k y) as [Hle|Hgt]; simpl.
  - split; [|split; auto]. intros z [<-|I]; [exact Hle|]. specialize (H1 z I). lia.
  - split; [|apply IH; exact H2]. intros z I. apply ninsert_in in I. destruct I as [->|I]; [lia|apply H1; exact I].
Qed.
Lemma nsort_sorted l : nsorted (nsort l).
Proof. induction l; simpl; [exact I|apply ninsert_sorted; assumption]. Qed.

Lemma sorted_unique l1 : forall l2, nsorted l1 -> nsorted l2 -> NoDup l1 -> NoDup l2 -> (forall x, In x l1 <-> In x l2) -> l1 = l2.
Proof.
  induction l1 as [|a l1 IH]; intros [|b l2] S1 S2 N1 N2 Hm.
  - reflexivity.
  - exfalso. apply (proj2 (Hm b)). left. reflexivity.
  - exfalso. apply (proj1 (Hm a)). left. reflexivity.
  - destruct S1 as [A1 S1]. destruct S2 as [A2 S2]. inversion N1 as [|? ? Na N1']; subst. inversion N2 as [|? ? Nb N2']; subst.
    assert (E : a = b).
    { destruct (proj1 (Hm a) (or_introl eq_refl)) as [->|Ia]; [reflexivity|].
      destruct (proj2 (Hm b) (or_introl eq_refl)) as [->|Ib]; [reflexivity|].
      specialize (A1 b Ib). specialize (A2 a Ia). lia. }
    subst b. f_equal. apply IH; auto. intros x. split; intros I.
    + destruct (proj1 (Hm x) (or_intror I)) as [->|I']; [contradiction|exact I'].
    + destruct (proj2 (Hm x) (or_intror I)) as [->|I']; [contradiction|exact I'].
Qed.

Lemma nsorted_map (p : N -> N) l : nsorted l -> (forall m n, In m l -> In n l -> (m <= n)%N -> (p m <= p n)%N) -> nsorted (map p l).
Proof.
  induction l as [|x r IH]; simpl; [auto|]. intros [H1 H2] Hm. split.
  - intros y I. apply in_map_iff in I. destruct I as (z & <- & Iz). apply Hm; auto.
  - apply IH; auto.
Qed.
Lemma nsorted_map_seq (g : nat -> N) : (forall i j, (i <= j)%nat -> (g i <= g j)%N) -> forall k a, nsorted (map g (seq a k)).
Proof.
  intros Hg. induction k as [|k IH]; intros a; simpl; [exact I|]. split; [|apply IH].
  intros y Iy. apply in_map_iff in Iy. destruct Iy as (j & <- & Ij). apply in_seq in Ij. apply Hg. lia.
Qed.

Lemma nth_map {X Y} (F : X -> Y) (l : list X) i dy dx : (i < length l)%nat -> nth i (map F l) dy = F (nth i l dx).
Proof. intros Hi. rewrite (nth_indep (map F l) dy (F dx)) by (rewrite map_length; exact Hi). apply map_nth. Qed.

Lemma map_snd_combine {X Y} (l1 : list X) : forall l2 : list Y, length l1 = length l2 -> map snd (combine l1 l2) = l2.
Proof. induction l1; intros [|y l2] E; simpl in *; try discriminate; auto. f_equal. apply IHl1. lia. Qed.
Lemma map_fst_combine {X Y} (l1 : list X) : forall l2 : list Y, length l1 = length l2 -> map fst (combine l1 l2) = l1.
Proof. induction l1; intros [|y l2] E; simpl in *; try discriminate; auto. f_equal. apply IHl1. lia. Qed.

Lemma snd_inj (m : list (N * N)) u v h : NoDup (map snd m) -> In (u, h) m -> In (v, h) m -> u = v.
Proof.
  induction m as [|[a b] m IH]; simpl; [intros _ []|]. intros Hnd. inversion Hnd as [|? ? Hn Hnd']; subst.
  intros [E1|I1] [E2|I2].
  - congruence.
  - inversion E1; subst. exfalso. apply Hn. change h with (snd (v, h)). apply in_map. exact I2.
  - inversion E2; subst. exfalso. apply Hn. change h with (snd (u, h)). apply in_map. exact I1.
  - auto.
Qed.

Lemma filter_split_perm {X} (f : X -> bool) (l : list X) : Permutation (filter f l ++ filter (fun x => negb (f x)) l) l.
Proof.
  induction l as [|x l IH]; simpl; [constructor|]. destruct (f x); simpl.
  - apply perm_skip. exact IH.
  - eapply Permutation_trans; [apply Permutation_sym; apply Permutation_middle|]. apply perm_skip. exact IH.
Qed.
