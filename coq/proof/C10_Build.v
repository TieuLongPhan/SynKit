(** C10 — proofs: invariants of graphs built with add_node / add_edge, the iteration order
    G.edges() ([edges_iter]) and folds of add_node / add_edge seen through [label] / [adj]. *)
From Coq Require Import List NArith ZArith Bool Lia.
From SK Require Import lib.LGraph lib.StrJoin model.C10_Model proof.C10_Views.
Import ListNotations.
Local Open Scope Z_scope.

Lemma str_eqb_eq a : forall b, str_eqb a b = true <-> a = b.
Proof.
  induction a as [|x a IH]; destruct b as [|y b]; simpl; split; try congruence; try discriminate.
  - intros H. apply andb_true_iff in H as [H1 H2]. apply N.eqb_eq in H1. apply IH in H2. congruence.
  - intros [= -> ->]. rewrite N.eqb_refl. apply IH. reflexivity.
Qed.

Lemma nodupb_NoDup l : nodupb l = true -> NoDup l.
Proof.
  induction l as [|x r IH]; simpl; [constructor|]. intros H. apply andb_true_iff in H as [H1 H2].
  constructor; [|apply IH; exact H2]. intros Hin. apply mem_spec in Hin. rewrite Hin in H1. discriminate.
Qed.

Lemma fold_left_ext_in {A B} (f f' : A -> B -> A) l : forall g,
  (forall acc x, In x l -> f acc x = f' acc x) -> fold_left f l g = fold_left f' l g.
Proof.
  induction l as [|x r IH]; intros g H; simpl; [reflexivity|].
  rewrite H by (left; reflexivity). apply IH. intros acc y Hy. apply H. right. exact Hy.
Qed.
Lemma fold_left_map' {A B C} (f : A -> C -> A) (h : B -> C) l : forall g,
  fold_left f (map h l) g = fold_left (fun acc x => f acc (h x)) l g.
Proof. induction l as [|x r IH]; intros g; simpl; [reflexivity|apply IH]. Qed.
Lemma fold_pair_fst {A B X} (f1 : A -> X -> A) (f2 : B -> X -> B) l : forall st,
  fold_left (fun acc x => (f1 (fst acc) x, f2 (snd acc) x)) l st = (fold_left f1 l (fst st), fold_left f2 l (snd st)).
Proof. induction l as [|x r IH]; intros [a b]; simpl; [reflexivity|]. rewrite IH. reflexivity. Qed.

(** ** one entry per unordered pair *)
Definition is_some {A} (o : option A) : bool := match o with Some _ => true | None => false end.
Definition has_pair (u v : N) (l : list (N * N * eatt)) : bool :=
  existsb (fun e : N * N * eatt => pair_eqb (fst (fst e)) (snd (fst e)) u v) l.

Lemma has_pair_find u v es : has_pair u v es = is_some (find_edge u v es).
Proof.
  induction es as [|[[a b] x] r IH]; [reflexivity|]. simpl has_pair. rewrite find_edge_cons. simpl.
  destruct (pair_eqb a b u v); [reflexivity|exact IH].
Qed.
Lemma in_find_some es a b (x : eatt) u v : In (a, b, x) es -> pair_eqb a b u v = true -> find_edge u v es <> None.
Proof.
  induction es as [|[[a0 b0] x0] r IH]; [intros []|]. rewrite find_edge_cons. intros [E|Hin] P.
  - inversion E; subst. rewrite P. discriminate.
  - destruct (pair_eqb a0 b0 u v); [discriminate|]. apply IH; assumption.
Qed.
Lemma find_some_in es u v (x : eatt) : find_edge u v es = Some x -> exists a b, In (a, b, x) es /\ pair_eqb a b u v = true.
Proof.
  induction es as [|[[a0 b0] x0] r IH]; [discriminate|]. rewrite find_edge_cons.
  destruct (pair_eqb a0 b0 u v) eqn:P.
  - intros [= ->]. exists a0, b0. split; [left; reflexivity|exact P].
  - intros H. destruct (IH H) as (a & b & Hin & Pab). exists a, b. split; [right; exact Hin|exact Pab].
Qed.
Lemma find_edge_pair es a b u v : pair_eqb a b u v = true -> @find_edge eatt a b es = find_edge u v es.
Proof. intros P. apply pair_eqb_spec in P. destruct P as [[-> ->]|[-> ->]]; [reflexivity|apply find_edge_sym]. Qed.

Lemma uniq_find es a b (x : eatt) u v :
  uniq_pairs es = true -> In (a, b, x) es -> pair_eqb a b u v = true -> find_edge u v es = Some x.
Proof.
  induction es as [|[[a0 b0] x0] r IH]; [intros _ []|]. simpl uniq_pairs. rewrite find_edge_cons.
  destruct (find_edge a0 b0 r) eqn:F; [discriminate|]. intros U [E|Hin] P.
  - inversion E; subst. rewrite P. reflexivity.
  - destruct (pair_eqb a0 b0 u v) eqn:P0; [|apply IH; assumption].
    exfalso. apply (in_find_some r a b x a0 b0 Hin); [|exact F].
    rewrite (pair_eqb_trans _ _ _ _ a0 b0 P). rewrite pair_eqb_sym. exact P0.
Qed.

Lemma uniq_upd u v f es : uniq_pairs (upd_edge u v f es) = uniq_pairs es.
Proof.
  induction es as [|[[a b] x] r IH]; [reflexivity|]. simpl upd_edge. fold (pair_eqb a b u v).
  destruct (pair_eqb a b u v); simpl; [reflexivity|].
  rewrite find_edge_upd, IH. destruct (pair_eqb u v a b); [|reflexivity]. destruct (find_edge a b r); reflexivity.
Qed.
Lemma uniq_snoc es u v (a : eatt) : uniq_pairs es = true -> find_edge u v es = None -> uniq_pairs (es ++ [(u, v, a)]) = true.
Proof.
  induction es as [|[[a0 b0] x0] r IH]; [reflexivity|]. simpl uniq_pairs. rewrite find_edge_cons.
  destruct (find_edge a0 b0 r) eqn:F; [discriminate|]. destruct (pair_eqb a0 b0 u v) eqn:P; [discriminate|].
  intros U Fuv. rewrite find_edge_app, F. simpl. fold (pair_eqb u v a0 b0). rewrite pair_eqb_sym, P. apply IH; assumption.
Qed.
Lemma in_upd_edge u v f es a b (x : eatt) : In (a, b, x) (upd_edge u v f es) -> exists x', In (a, b, x') es.
Proof.
  induction es as [|[[a0 b0] x0] r IH]; [intros []|]. simpl upd_edge. destruct (_ || _).
  - intros [E|H]; [inversion E; subst; exists x0; left; reflexivity|exists x; right; exact H].
  - intros [E|H]; [exists x; left; exact E|]. destruct (IH H) as [x' Hx']. exists x'. right. exact Hx'.
Qed.

(** ** graphs built with the primitives *)
Definition closed (g : gr) : Prop :=
  forall a b x, In (a, b, x) (gedges g) -> has_node g a = true /\ has_node g b = true.
Record gwf (g : gr) : Prop := { gwf_nd : NoDup (node_ids g); gwf_uq : uniq_pairs (gedges g) = true; gwf_cl : closed g }.

Lemma gwf_empty : gwf g_empty.
Proof. split; [constructor|reflexivity|intros a b x []]. Qed.

Lemma NoDup_snoc {A} (l : list A) n : NoDup l -> ~ In n l -> NoDup (l ++ [n]).
Proof.
  induction 1 as [|x r Hx Hr IH]; simpl; intros Hn; [constructor; [intros []|constructor]|].
  constructor; [|apply IH; tauto]. rewrite in_app_iff. simpl. intros [H|[H|[]]]; [tauto|]. apply Hn. left. congruence.
Qed.

Lemma gwf_add_node g n a : gwf g -> gwf (add_node g n a).
Proof.
  intros [Hnd Huq Hcl]. split.
  - rewrite node_ids_add_node. destruct (has_node g n) eqn:E; [exact Hnd|].
    apply NoDup_snoc; [exact Hnd|]. intros Hin. apply has_node_in in Hin. congruence.
  - rewrite gedges_add_node. exact Huq.
  - intros u v x. rewrite gedges_add_node. intros H. destruct (Hcl _ _ _ H) as [H1 H2].
    rewrite !has_node_add_node, H1, H2, !orb_true_r. auto.
Qed.

Lemma gwf_set_node g n f : gwf g -> gwf (set_node g n f).
Proof.
  intros [Hnd Huq Hcl]. split; [rewrite node_ids_set_node; exact Hnd|exact Huq|].
  intros a b x H. rewrite !has_node_set_node. apply (Hcl a b x H).
Qed.

Lemma gwf_add_edge g u v a : gwf g -> gwf (add_edge g u v a).
Proof.
  intros W. assert (gwf (ends_exist g u v)) as [Hnd Huq Hcl] by (unfold ends_exist; auto using gwf_add_node).
  assert (has_node (ends_exist g u v) u = true /\ has_node (ends_exist g u v) v = true) as [Hu Hv].
  { unfold ends_exist. rewrite !has_node_add_node, !N.eqb_refl, !orb_true_r. auto. }
  rewrite add_edge_unfold. cbv zeta. unfold has_edge, adj.
  destruct (find_edge u v (gedges (ends_exist g u v))) eqn:F; split; simpl; try exact Hnd.
  - rewrite uniq_upd. exact Huq.
  - intros x y e0 H. apply in_upd_edge in H. destruct H as [e' H]. apply (Hcl x y e' H).
  - apply uniq_snoc; assumption.
  - intros x y e0 H. apply in_app_iff in H. destruct H as [H|[E|[]]]; [apply (Hcl x y e0 H)|].
    inversion E; subst. unfold has_node, label in *. simpl. auto.
Qed.

Lemma in_inc_unseen seen n es a b (x : eatt) :
  In (a, b, x) (inc_unseen seen n es) -> a = n /\ (In (n, b, x) es \/ In (b, n, x) es).
Proof.
  unfold inc_unseen. rewrite in_flat_map. intros ([[a0 b0] x0] & Hin & H).
  destruct (N.eqb_spec a0 n) as [->|].
  - destruct (mem b0 seen); [destruct H|]. destruct H as [E|[]]. inversion E; subst. auto.
  - destruct (N.eqb_spec b0 n) as [->|]; [|destruct H]. destruct (mem a0 seen); [destruct H|].
    destruct H as [E|[]]. inversion E; subst. auto.
Qed.
Lemma in_edges_from rest : forall seen es a b (x : eatt),
  In (a, b, x) (edges_from seen rest es) -> In (a, b, x) es \/ In (b, a, x) es.
Proof.
  induction rest as [|n r IH]; intros seen es a b x; simpl; [intros []|]. rewrite in_app_iff. intros [H|H].
  - apply in_inc_unseen in H. destruct H as [-> H]. exact H.
  - apply (IH _ _ _ _ _ H).
Qed.
Lemma edges_from_complete rest : forall seen es a b (x : eatt),
  In (a, b, x) es -> In a rest -> In b rest -> ~ In a seen -> ~ In b seen ->
  In (a, b, x) (edges_from seen rest es) \/ In (b, a, x) (edges_from seen rest es).
Proof.
  induction rest as [|n r IH]; intros seen es a b x Hin Ha Hb Hsa Hsb; [destruct Ha|].
  simpl. rewrite !in_app_iff.
  destruct (N.eq_dec n a) as [->|Hna].
  - left. left. unfold inc_unseen. apply in_flat_map. exists (a, b, x). split; [exact Hin|].
    rewrite N.eqb_refl. destruct (mem b seen) eqn:M; [apply mem_spec in M; contradiction|left; reflexivity].
  - destruct (N.eq_dec n b) as [->|Hnb].
    + right. left. unfold inc_unseen. apply in_flat_map. exists (a, b, x). split; [exact Hin|].
      destruct (N.eqb_spec a b); [congruence|]. rewrite N.eqb_refl.
      destruct (mem a seen) eqn:M; [apply mem_spec in M; contradiction|left; reflexivity].
    + destruct Ha as [Ha|Ha]; [congruence|]. destruct Hb as [Hb|Hb]; [congruence|].
      assert (~ In a (n :: seen)) as Hsa' by (intros [E|E]; [congruence|contradiction]).
      assert (~ In b (n :: seen)) as Hsb' by (intros [E|E]; [congruence|contradiction]).
      destruct (IH (n :: seen) es a b x Hin Ha Hb Hsa' Hsb') as [H|H]; tauto.
Qed.

Lemma edges_iter_data (g : gr) a b x : gwf g -> In (a, b, x) (edges_iter g) -> adj g a b = Some x.
Proof.
  intros W H. apply in_edges_from in H. destruct H as [H|H].
  - apply (uniq_find _ a b x a b (gwf_uq g W) H). apply pair_eqb_refl.
  - apply (uniq_find _ b a x a b (gwf_uq g W) H). rewrite pair_eqb_swap. apply pair_eqb_refl.
Qed.
(** G.edges() never looks at the bond dictionaries: it commutes with any map on them *)
Lemma inc_unseen_map_att (F : eatt -> eatt) seen n (es : list (N * N * eatt)) :
  inc_unseen seen n (map (fun e : N * N * eatt => (fst e, F (snd e))) es)
  = map (fun e : N * N * eatt => (fst e, F (snd e))) (inc_unseen seen n es).
Proof.
  unfold inc_unseen. induction es as [|[[a b] x] t IHt]; [reflexivity|]. cbn [map flat_map fst snd]. rewrite map_app, IHt.
  apply (f_equal (fun l => l ++ _)).
  destruct (N.eqb a n); [destruct (mem b seen); reflexivity|]. destruct (N.eqb b n); [destruct (mem a seen); reflexivity|reflexivity].
Qed.
Lemma edges_from_map_att (F : eatt -> eatt) rest : forall seen (es : list (N * N * eatt)),
  edges_from seen rest (map (fun e : N * N * eatt => (fst e, F (snd e))) es)
  = map (fun e : N * N * eatt => (fst e, F (snd e))) (edges_from seen rest es).
Proof.
  induction rest as [|n r IH]; intros seen es; [reflexivity|]. cbn [edges_from]. rewrite map_app, IH, inc_unseen_map_att. reflexivity.
Qed.
Lemma adj_ends (g : gr) u v x : gwf g -> adj g u v = Some x -> has_node g u = true /\ has_node g v = true.
Proof.
  intros W A. apply find_some_in in A. destruct A as (a & b & Hin & P). destruct (gwf_cl g W a b x Hin) as [Ha Hb].
  apply pair_eqb_spec in P. destruct P as [[<- <-]|[<- <-]]; auto.
Qed.
Lemma edges_iter_ends (g : gr) u v x : gwf g -> In (u, v, x) (edges_iter g) -> has_node g u = true /\ has_node g v = true.
Proof. intros W Hin. apply (adj_ends g u v x W), edges_iter_data; assumption. Qed.
Lemma has_pair_edges_iter (g : gr) u v : gwf g -> has_pair u v (edges_iter g) = is_some (adj g u v).
Proof.
  intros W. apply eq_true_iff_eq. rewrite has_pair_find. split.
  - destruct (find_edge u v (edges_iter g)) as [x|] eqn:F; [intros _|discriminate].
    apply find_some_in in F. destruct F as (a & b & Hin & P). apply (edges_iter_data g a b x W) in Hin.
    unfold adj in *. rewrite <- (find_edge_pair _ a b u v P), Hin. reflexivity.
  - unfold adj. destruct (find_edge u v (gedges g)) as [x|] eqn:F; [intros _|discriminate].
    apply find_some_in in F. destruct F as (a & b & Hin & P).
    destruct (gwf_cl g W a b x Hin) as [Ha Hb]. apply has_node_in in Ha, Hb.
    destruct (edges_from_complete (node_ids g) [] (gedges g) a b x Hin Ha Hb) as [H|H]; try (intros []).
    + pose proof (in_find_some _ a b x u v H P). unfold edges_iter. destruct (find_edge u v _); [reflexivity|congruence].
    + assert (pair_eqb b a u v = true) as P' by (rewrite pair_eqb_swap_l; exact P).
      pose proof (in_find_some _ b a x u v H P'). unfold edges_iter. destruct (find_edge u v _); [reflexivity|congruence].
Qed.
Lemma edges_iter_nil (g : gr) : gedges g = [] -> edges_iter g = [].
Proof.
  unfold edges_iter. intros ->. generalize (@nil N). induction (node_ids g) as [|n r IH]; intros seen; [reflexivity|].
  simpl. apply IH.
Qed.

(** ** folding add_node over a list with distinct keys *)
Section FoldNodes.
Variable F : N * natt -> natt.
Definition nstep (acc : gr) (p : N * natt) : gr := add_node acc (fst p) (F p).
Lemma fold_nstep_label l : forall g n, NoDup (map fst l) ->
  label (fold_left nstep l g) n =
  match assoc n l with
  | Some a => Some (match label g n with Some old => na_update (F (n, a)) old | None => F (n, a) end)
  | None => label g n
  end.
Proof.
  induction l as [|[k a0] r IH]; intros g n Hnd; [reflexivity|]. inversion Hnd as [|? ? Hnot Hnd']; subst.
  simpl fold_left. rewrite IH by exact Hnd'.
  assert (label (nstep g (k, a0)) n =
          if N.eqb n k then Some (match label g k with Some old => na_update (F (k, a0)) old | None => F (k, a0) end)
          else label g n) as E by (unfold nstep; simpl; apply label_add_node).
  rewrite E. simpl assoc. destruct (N.eqb_spec n k) as [->|Hne].
  - apply assoc_none_iff in Hnot. rewrite Hnot. reflexivity.
  - reflexivity.
Qed.
Lemma fold_nstep_gedges l : forall g, gedges (fold_left nstep l g) = gedges g.
Proof. induction l as [|p r IH]; intros g; simpl; [reflexivity|]. rewrite IH. apply gedges_add_node. Qed.
Lemma fold_nstep_gwf l : forall g, gwf g -> gwf (fold_left nstep l g).
Proof. induction l as [|p r IH]; intros g W; simpl; [exact W|]. apply IH. apply gwf_add_node. exact W. Qed.
End FoldNodes.

(** ** folding add_edge where the data written for a pair is a (symmetric) function of the pair *)
Section FoldEdges.
Variable dopt : N -> N -> option eatt.
Hypothesis dsym : forall u v, dopt u v = dopt v u.
Definition estep (acc : gr) (e : N * N) : gr :=
  match dopt (fst e) (snd e) with Some y => add_edge acc (fst e) (snd e) y | None => acc end.
Definition pmatch (u v : N) (eo : list (N * N)) : bool := existsb (fun e : N * N => pair_eqb (fst e) (snd e) u v) eo.

Lemma dopt_pair a b u v : pair_eqb a b u v = true -> dopt a b = dopt u v.
Proof. intros P. apply pair_eqb_spec in P. destruct P as [[-> ->]|[-> ->]]; [reflexivity|apply dsym]. Qed.
Lemma adj_pair (g : gr) a b u v : pair_eqb a b u v = true -> adj g a b = adj g u v.
Proof. apply find_edge_pair. Qed.

Lemma fold_estep_adj eo : forall g u v, (adj g u v = None \/ adj g u v = dopt u v) ->
  adj (fold_left estep eo g) u v = if pmatch u v eo then dopt u v else adj g u v.
Proof.
  induction eo as [|[a b] r IH]; intros g u v Hinv; [reflexivity|]. simpl fold_left. simpl pmatch.
  unfold estep at 2. simpl fst. simpl snd.
  destruct (pair_eqb a b u v) eqn:P; simpl.
  - rewrite (dopt_pair _ _ _ _ P).
    assert (adj (match dopt u v with Some y => add_edge g a b y | None => g end) u v = dopt u v) as E.
    { destruct (dopt u v) as [y|] eqn:D.
      - rewrite adj_add_edge, P, (adj_pair g _ _ _ _ P).
        destruct Hinv as [H|H]; rewrite H; rewrite ?D; rewrite ?ea_update_idem; reflexivity.
      - destruct Hinv as [H|H]; congruence. }
    rewrite IH by (right; exact E). destruct (pmatch u v r); [reflexivity|exact E].
  - destruct (dopt a b) as [y|]; [|apply IH; exact Hinv].
    rewrite IH; rewrite adj_add_edge, P; [reflexivity|exact Hinv].
Qed.

Lemma fold_estep_label_some eo : forall g m b, label g m = Some b -> label (fold_left estep eo g) m = Some b.
Proof.
  induction eo as [|[u v] r IH]; intros g m b H; [exact H|]. simpl. apply IH. unfold estep. simpl.
  destruct (dopt u v); [|exact H]. rewrite label_add_edge, H. destruct (_ || _); reflexivity.
Qed.
Lemma fold_estep_has_node eo : forall g m, has_node (fold_left estep eo g) m = true ->
  has_node g m = true \/ exists e, In e eo /\ (m = fst e \/ m = snd e).
Proof.
  induction eo as [|[u v] r IH]; intros g m H; [left; exact H|]. simpl in H. apply IH in H.
  destruct H as [H|(e & He & Hm)]; [|right; exists e; split; [right; exact He|exact Hm]].
  unfold estep in H. simpl in H. destruct (dopt u v); [|left; exact H].
  rewrite has_node_add_edge in H. apply orb_true_iff in H. destruct H as [H|H]; [|left; exact H].
  right. exists (u, v). split; [left; reflexivity|]. simpl. apply orb_true_iff in H. rewrite !N.eqb_eq in H. exact H.
Qed.
Lemma fold_estep_gwf eo : forall g, gwf g -> gwf (fold_left estep eo g).
Proof.
  induction eo as [|e r IH]; intros g W; [exact W|]. simpl. apply IH. unfold estep.
  destruct (dopt _ _); [apply gwf_add_edge|]; exact W.
Qed.
Lemma fold_estep_node_ids eo : forall g, (forall e, In e eo -> has_node g (fst e) = true /\ has_node g (snd e) = true) ->
  gnodes (fold_left estep eo g) = gnodes g.
Proof.
  induction eo as [|e r IH]; intros g H; [reflexivity|]. simpl.
  assert (gnodes (estep g e) = gnodes g) as E.
  { unfold estep. destruct (dopt _ _); [|reflexivity]. apply gnodes_add_edge_exist; apply (H e); left; reflexivity. }
  rewrite IH; [exact E|]. intros e' He'. unfold has_node, label. rewrite E. apply (H e'). right. exact He'.
Qed.
End FoldEdges.

Lemma adj_in_edges_iter (g : gr) u v x : gwf g -> adj g u v = Some x ->
  exists a b, In (a, b, x) (edges_iter g) /\ pair_eqb a b u v = true.
Proof.
  intros W A. assert (has_pair u v (edges_iter g) = true) as HP by (rewrite has_pair_edges_iter, A by exact W; reflexivity).
  unfold has_pair in HP. apply existsb_exists in HP. destruct HP as ([[a b] x'] & Hin & P). simpl in P.
  pose proof (edges_iter_data g a b x' W Hin) as A'. rewrite (adj_pair g _ _ _ _ P), A in A'. injection A' as <-. eauto.
Qed.
