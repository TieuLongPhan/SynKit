(** C16 — bipartite view, part A: what [hypergraph_to_bipartite] builds (nodes, arcs, the two id maps). *)
From stdpp Require Import gmap strings sets pretty sorting.
From SK Require Import lib.Tok model.C15_Model proof.C15_Proof model.C16_Model proof.C16_Defs proof.C16_Common.
Local Open Scope string_scope.
Local Open Scope list_scope.

Lemma string_app_inj (p s s' : string) : p +:+ s = p +:+ s' → s = s'.
Proof. induction p as [|a p IH]; simpl; [done|]. intros [= ?]. auto. Qed.

Lemma opt_upd_None {A} (x : option A) : opt_upd x None = x.
Proof. by destruct x. Qed.
Lemma bnode_upd_empty nd : bnode_upd nd (BNode None None None None None) = nd.
Proof. destruct nd. unfold bnode_upd. cbn. by rewrite !opt_upd_None. Qed.
Lemma barc_upd_empty a : barc_upd a (BArc None None) = a.
Proof. destruct a. unfold barc_upd. cbn. by rewrite !opt_upd_None. Qed.

(** the two kinds of arcs, by whether the arc comes in to the reaction node (a reactant) or goes out (a product) *)
Definition rside (inc : bool) (rx : rxn) : side := if inc then r_lhs rx else r_rhs rx.
Definition arc_role (inc : bool) : string := if inc then "reactant" else "product".
Definition arc_key (inc : bool) (ns nr : nid) : nid * nid := if inc then (ns, nr) else (nr, ns).
Global Instance arc_key_inj inc nr : Inj (=) (=) (λ ns, arc_key inc ns nr).
Proof. intros ??. destruct inc; by intros [= ?]. Qed.

Section export.
  Context (fl : bflags) (H : net).

  Definition sp_nid (s : string) (k : N) : nid := if f_int fl then inl k else inr (default "" (f_sp fl) +:+ s).
  Definition rx_nid (e : string) (k : N) : nid := if f_int fl then inl k else inr (default "" (f_rp fl) +:+ e).
  Definition next_num (k : N) : N := if f_int fl then (k + 1)%N else k.

  (** the shape of a species id in the current mode *)
  Definition sp_mode (s : string) (n : nid) (next : N) : Prop :=
    if f_int fl then ∃ k, n = inl k ∧ (k < next)%N else n = inr (default "" (f_sp fl) +:+ s).
  Definition rx_mode (e : string) (n : nid) (next : N) : Prop :=
    if f_int fl then ∃ k, n = inl k ∧ (k < next)%N else n = inr (default "" (f_rp fl) +:+ e).

  Lemma sp_mode_mono s n k k' : (k ≤ k')%N → sp_mode s n k → sp_mode s n k'.
  Proof. unfold sp_mode. destruct (f_int fl); [|done]. intros ? (j & -> & ?). exists j. split; [done|lia]. Qed.
  Lemma rx_mode_mono e n k k' : (k ≤ k')%N → rx_mode e n k → rx_mode e n k'.
  Proof. unfold rx_mode. destruct (f_int fl); [|done]. intros ? (j & -> & ?). exists j. split; [done|lia]. Qed.

  (** * phase 1: the species nodes *)
  Record SpInv (st : est) : Prop := {
    spi_arcs : e_arcs st = ∅;
    spi_nodes : ∀ n nd, e_nodes st !! n = Some nd ↔ ∃ s, e_smap st !! s = Some n ∧ nd = sp_attrs fl H s;
    spi_inj : ∀ s s' n, e_smap st !! s = Some n → e_smap st !! s' = Some n → s = s';
    spi_mode : ∀ s n, e_smap st !! s = Some n → sp_mode s n (e_next st)
  }.

  Lemma add_sp_node_known st s n : e_smap st !! s = Some n → add_sp_node fl H st s = (st, n).
  Proof. intros Hs. unfold add_sp_node. by rewrite Hs. Qed.

  Lemma add_sp_node_dom st s : dom (e_smap (add_sp_node fl H st s).1) = dom (e_smap st) ∪ {[ s ]}.
  Proof.
    unfold add_sp_node. destruct (e_smap st !! s) as [n|] eqn:Hs; cbn.
    - apply elem_of_dom_2 in Hs. set_solver.
    - rewrite dom_insert_L. apply (comm_L (∪)).
  Qed.

  Lemma add_sp_node_SpInv st s : SpInv st → SpInv (add_sp_node fl H st s).1.
  Proof.
    intros [Ha Hn Hi Hm]. unfold add_sp_node. destruct (e_smap st !! s) as [n|] eqn:Hs; [done|].
    cbv zeta. match goal with |- context [<[s := ?x]> (e_smap st)] => set (n := x) end.
    assert (e_nodes st !! n = None) as Hfresh.
    { destruct (e_nodes st !! n) as [nd|] eqn:E; [|done]. apply Hn in E as (s' & Hs' & _).
      specialize (Hm s' n Hs'). unfold sp_mode, n in *. destruct (f_int fl).
      - destruct Hm as (k & [= <-] & ?). lia.
      - injection Hm as Hm. apply string_app_inj in Hm. congruence. }
    assert (∀ s', e_smap st !! s' ≠ Some n) as Hnew.
    { intros s' Hs'. assert (is_Some (e_nodes st !! n)) as [? ?]; [|congruence]. eexists. apply Hn. eauto. }
    rewrite Hfresh. split; cbn.
    + done.
    + intros n' nd. rewrite lookup_insert_Some. split.
      * intros [[<- <-]|[Hne Hl]].
        -- exists s. by rewrite lookup_insert.
        -- apply Hn in Hl as (s' & Hs' & ->). exists s'. split; [|done].
           rewrite lookup_insert_ne; [done|]. intros ->. congruence.
      * intros (s' & Hs' & ->). apply lookup_insert_Some in Hs' as [[<- <-]|[Hne Hs']]; [by left|].
        right. split; [intros <-; by apply Hnew in Hs'|]. apply Hn. eauto.
    + intros s1 s2 n'. rewrite !lookup_insert_Some.
      intros [[<- <-]|[Hne1 H1]] [[<- Heq]|[Hne2 H2]]; try done.
      * by apply Hnew in H2.
      * subst n'. by apply Hnew in H1.
      * eauto.
    + intros s' n'. rewrite lookup_insert_Some. intros [[<- <-]|[Hne Hs']].
      * unfold sp_mode, n. destruct (f_int fl); [|done]. eexists. split; [done|lia].
      * eapply sp_mode_mono; [|by apply Hm]. destruct (f_int fl); lia.
  Qed.

  Lemma fold_sp_SpInv (l : list string) : ∀ st, SpInv st → SpInv (foldl (λ st s, (add_sp_node fl H st s).1) st l).
  Proof. induction l as [|s l IH]; intros st Hst; [done|]. by apply IH, add_sp_node_SpInv. Qed.
  Lemma fold_sp_dom (l : list string) : ∀ st,
    dom (e_smap (foldl (λ st s, (add_sp_node fl H st s).1) st l)) = dom (e_smap st) ∪ list_to_set l.
  Proof.
    induction l as [|s l IH]; intros st; cbn [foldl].
    - by rewrite list_to_set_nil, (right_id_L ∅ (∪)).
    - by rewrite IH, add_sp_node_dom, list_to_set_cons, (assoc_L (∪)).
  Qed.

  Definition sp_state : est := foldl (λ st s, (add_sp_node fl H st s).1) (Est ∅ ∅ ∅ 1%N) (species_iter fl H).
  Definition sp_map : gmap string nid := e_smap sp_state.

  Lemma init_SpInv : SpInv (Est ∅ ∅ ∅ 1%N).
  Proof.
    split; cbn; [done| | |]; try by intros ??? ?%lookup_empty_Some.
    - intros n nd. rewrite lookup_empty. split; [done|]. by intros (? & ?%lookup_empty_Some & _).
    - by intros ?? ?%lookup_empty_Some.
  Qed.
  Lemma sp_state_SpInv : SpInv sp_state.
  Proof. apply fold_sp_SpInv, init_SpInv. Qed.
  Lemma sp_map_dom : dom sp_map = list_to_set (species_iter fl H).
  Proof. unfold sp_map, sp_state. rewrite fold_sp_dom. cbn. by rewrite dom_empty_L, (left_id_L ∅ (∪)). Qed.

  Lemma species_iter_elem s : s ∈ species_iter fl H →  s ∈ species H.
  Proof.
    unfold species_iter, sort_strings. rewrite merge_sort_Permutation, elem_of_elements.
    destruct (f_isolated fl); [done|]. by intros [_ ?]%elem_of_filter.
  Qed.
  Lemma species_iter_occurring s : wf_species H → s ∈ occurring H → s ∈ species_iter fl H.
  Proof.
    intros Hwf Hs. destruct (Hwf s Hs) as [Hsp Hidx].
    unfold species_iter, sort_strings. rewrite merge_sort_Permutation, elem_of_elements.
    destruct (f_isolated fl); [done|]. by apply elem_of_filter.
  Qed.

  Lemma sp_map_species s n : sp_map !! s = Some n → s ∈ species H.
  Proof.
    intros Hs%elem_of_dom_2. rewrite sp_map_dom in Hs. apply elem_of_list_to_set in Hs. by apply species_iter_elem.
  Qed.
  Lemma sp_map_occurring s : wf_species H → s ∈ occurring H → is_Some (sp_map !! s).
  Proof. intros Hwf Hs. apply elem_of_dom. rewrite sp_map_dom. apply elem_of_list_to_set. by apply species_iter_occurring. Qed.

  (** * phase 2: reaction nodes and arcs *)
  Definition arc_spec (R : gmap string nid) (D : list (string * rxn)) (k : nid * nid) (a : barc) : Prop :=
    ∃ inc e rx s c ns nr, (e, rx) ∈ D ∧ R !! e = Some nr ∧ sp_map !! s = Some ns ∧ rside inc rx !! s = Some c ∧
                          k = arc_key inc ns nr ∧ a = arc_attrs fl c (arc_role inc).

  Record RxInv (st : est) (R : gmap string nid) (D : list (string * rxn)) : Prop := {
    rxi_smap : e_smap st = sp_map;
    rxi_nodes : ∀ n nd, e_nodes st !! n = Some nd ↔
                 (∃ s, sp_map !! s = Some n ∧ nd = sp_attrs fl H s) ∨
                 (∃ e rx, (e, rx) ∈ D ∧ R !! e = Some n ∧ nd = rx_attrs fl e (r_rule rx));
    rxi_arcs : ∀ k a, e_arcs st !! k = Some a ↔ arc_spec R D k a;
    rxi_Rdom : ∀ e, is_Some (R !! e) ↔ e ∈ D.*1;
    rxi_Rinj : ∀ e e' n, R !! e = Some n → R !! e' = Some n → e = e';
    rxi_disj : ∀ s e n, sp_map !! s = Some n → R !! e = Some n → False;
    rxi_Mmode : ∀ s n, sp_map !! s = Some n → sp_mode s n (e_next st);
    rxi_Rmode : ∀ e n, R !! e = Some n → rx_mode e n (e_next st)
  }.

  Lemma sp_map_inj s s' n : sp_map !! s = Some n → sp_map !! s' = Some n → s = s'.
  Proof. apply (spi_inj _ sp_state_SpInv). Qed.

  Lemma RxInv_init : RxInv sp_state ∅ [].
  Proof.
    pose proof sp_state_SpInv as [Ha Hn Hi Hm]. split; try done.
    - intros n nd. rewrite Hn. split; [by left|]. intros [?|(? & ? & ?%elem_of_nil & _)]; done.
    - intros k a. rewrite Ha, lookup_empty. split; [done|]. by intros (? & ? & ? & ? & ? & ? & ? & ?%elem_of_nil & _).
    - intros e. rewrite lookup_empty. split; [by intros [? ?]|by intros ?%elem_of_nil].
  Qed.

  (** the inner loops: arcs between the reaction node and the (already numbered) species nodes *)
  Definition arc_step (mk : nid → nid * nid) (arc_role : string) (st : est) (sc : string * positive) : est :=
    let '(st', u) := add_sp_node fl H st sc.1 in add_arc st' (mk u).1 (mk u).2 (arc_attrs fl sc.2 arc_role).

  Lemma arc_fold mk arc_role (l : list (string * positive)) : Inj (=) (=) mk → NoDup l.*1 → ∀ st,
    e_smap st = sp_map → (∀ s c, (s, c) ∈ l → ∃ u, sp_map !! s = Some u ∧ e_arcs st !! mk u = None) →
    e_nodes (foldl (arc_step mk arc_role) st l) = e_nodes st ∧ e_smap (foldl (arc_step mk arc_role) st l) = sp_map ∧
    e_next (foldl (arc_step mk arc_role) st l) = e_next st ∧
    ∀ k a, e_arcs (foldl (arc_step mk arc_role) st l) !! k = Some a ↔
           e_arcs st !! k = Some a ∨ ∃ s c u, (s, c) ∈ l ∧ sp_map !! s = Some u ∧ k = mk u ∧ a = arc_attrs fl c arc_role.
  Proof.
    intros Hmk. induction l as [|[s c] l IH]; intros Hnd st Hsm Hfresh.
    - cbn. split_and!; try done. intros k a. split; [by left|]. intros [?|(? & ? & ? & ?%elem_of_nil & _)]; done.
    - rewrite fmap_cons in Hnd. apply NoDup_cons in Hnd as [Hs Hnd]. cbn [fst] in Hs. cbn [foldl].
      destruct (Hfresh s c) as (u & Hu & Hfu); [by left|].
      assert (arc_step mk arc_role st (s, c)
              = Est (e_nodes st) (<[mk u := arc_attrs fl c arc_role]> (e_arcs st)) (e_smap st) (e_next st)) as Hstep.
      { unfold arc_step. cbn [fst snd]. rewrite (add_sp_node_known st s u) by (by rewrite Hsm).
        unfold add_arc. rewrite <-surjective_pairing, Hfu. cbn [default]. by rewrite barc_upd_empty. }
      rewrite Hstep. destruct (IH Hnd (Est (e_nodes st) (<[mk u := arc_attrs fl c arc_role]> (e_arcs st)) (e_smap st) (e_next st)))
        as (Hn & Hm & Hx & Harcs).
      { done. }
      { intros s' c' Hin. destruct (Hfresh s' c') as (u' & Hu' & Hfu'); [by right|]. exists u'. split; [done|].
        cbn. rewrite lookup_insert_ne; [done|]. intros Heq%Hmk. subst u'.
        assert (s' = s) as -> by (by eapply sp_map_inj). apply Hs. apply elem_of_list_fmap. by exists (s, c'). }
      split_and!; [done|done|done|]. intros k a. rewrite Harcs. cbn [e_arcs]. rewrite lookup_insert_Some. split.
      + intros [[[<- <-]|[_ ?]]|(s' & c' & u' & Hin & ?)].
        * right. exists s, c, u. split; [by left|done].
        * by left.
        * right. exists s', c', u'. split; [by right|done].
      + intros [Hk|(s' & c' & u' & [[= -> ->]|Hin]%elem_of_cons & Hu' & -> & ->)].
        * left. right. split; [|done]. intros <-. congruence.
        * assert (u' = u) as -> by congruence. left. by left.
        * right. eauto 10.
  Qed.

  Lemma arc_phase inc rnd (sd : side) st : e_smap st = sp_map → (∀ s, s ∈ dom sd → is_Some (sp_map !! s)) →
    (∀ ns, e_arcs st !! arc_key inc ns rnd = None) →
    let st' := foldl (arc_step (λ ns, arc_key inc ns rnd) (arc_role inc)) st (map_to_list sd) in
    e_nodes st' = e_nodes st ∧ e_smap st' = sp_map ∧ e_next st' = e_next st ∧
    ∀ k a, e_arcs st' !! k = Some a ↔
           e_arcs st !! k = Some a ∨
           ∃ s c ns, sd !! s = Some c ∧ sp_map !! s = Some ns ∧ k = arc_key inc ns rnd ∧ a = arc_attrs fl c (arc_role inc).
  Proof.
    intros Hsm Hdom Hfresh.
    destruct (arc_fold (λ ns, arc_key inc ns rnd) (arc_role inc) (map_to_list sd) _ (NoDup_fst_map_to_list sd) st Hsm)
      as (Hn & Hm & Hx & Ha).
    { intros s c Hin%elem_of_map_to_list. destruct (Hdom s) as [ns Hns]; [by apply elem_of_dom_2 in Hin|]. eauto. }
    split_and!; [done..|]. intros k a. rewrite Ha. by setoid_rewrite elem_of_map_to_list.
  Qed.

  Lemma export_rxn_unfold st e rx :
    export_rxn fl H st (e, rx) =
    foldl (arc_step (λ ns, arc_key false ns (rx_nid e (e_next st))) (arc_role false))
      (foldl (arc_step (λ ns, arc_key true ns (rx_nid e (e_next st))) (arc_role true))
         (Est (<[rx_nid e (e_next st) := bnode_upd (rx_attrs fl e (r_rule rx))
                                          (default (BNode None None None None None) (e_nodes st !! rx_nid e (e_next st)))]> (e_nodes st))
              (e_arcs st) (e_smap st) (next_num (e_next st)))
         (map_to_list (r_lhs rx)))
      (map_to_list (r_rhs rx)).
  Proof. reflexivity. Qed.

  Lemma rx_nid_fresh st R D e : RxInv st R D → e ∉ D.*1 →
    (f_int fl = false → ∀ s n, sp_map !! s = Some n → n ≠ inr (default "" (f_rp fl) +:+ e)) →
    (∀ s, sp_map !! s ≠ Some (rx_nid e (e_next st))) ∧ (∀ e', R !! e' ≠ Some (rx_nid e (e_next st))) ∧
    e_nodes st !! rx_nid e (e_next st) = None ∧
    ∀ k a, e_arcs st !! k = Some a → k.1 ≠ rx_nid e (e_next st) ∧ k.2 ≠ rx_nid e (e_next st).
  Proof.
    intros [Hsm Hnodes Harcs HRdom HRinj Hdisj HMm HRm] HeD Hnames. set (rnd := rx_nid e (e_next st)).
    assert (∀ s, sp_map !! s ≠ Some rnd) as F1.
    { intros s Hs. pose proof (HMm s rnd Hs) as Hmode. unfold sp_mode, rnd, rx_nid in *.
      destruct (f_int fl) eqn:Hint.
      - destruct Hmode as (k & [= <-] & ?). lia.
      - by apply (Hnames eq_refl s _ Hs). }
    assert (∀ e', R !! e' ≠ Some rnd) as F2.
    { intros e' He'. pose proof (HRm e' rnd He') as Hmode. unfold rx_mode, rnd, rx_nid in *.
      destruct (f_int fl).
      - destruct Hmode as (k & [= <-] & ?). lia.
      - injection Hmode as Hq. apply string_app_inj in Hq. subst e'. apply HeD, HRdom. eauto. }
    split_and!; [done|done| |].
    - destruct (e_nodes st !! rnd) as [nd|] eqn:E; [|done].
      apply Hnodes in E as [(s & Hs & _)|(e' & rx' & _ & He' & _)]; [by apply F1 in Hs|by apply F2 in He'].
    - intros k a (inc & e' & rx' & s & c & ns & nr & _ & He' & Hs & _ & -> & _)%Harcs.
      destruct inc; split; intros <-; first [by apply F1 in Hs|by apply F2 in He'].
  Qed.

  Lemma export_rxn_RxInv st R D e rx : RxInv st R D → e ∉ D.*1 →
    (∀ s, s ∈ rxn_species rx → is_Some (sp_map !! s)) →
    (f_int fl = false → ∀ s n, sp_map !! s = Some n → n ≠ inr (default "" (f_rp fl) +:+ e)) →
    RxInv (export_rxn fl H st (e, rx)) (<[e := rx_nid e (e_next st)]> R) (D ++ [(e, rx)]) ∧
    e_next (export_rxn fl H st (e, rx)) = next_num (e_next st).
  Proof.
    intros HI HeD Hsp Hnames. destruct (rx_nid_fresh st R D e HI HeD Hnames) as (F1 & F2 & F3 & F4).
    destruct HI as [Hsm Hnodes Harcs HRdom HRinj Hdisj HMm HRm]. set (rnd := rx_nid e (e_next st)) in *.
    rewrite export_rxn_unfold. fold rnd. rewrite F3. cbn [default]. rewrite bnode_upd_empty.
    set (st1 := Est (<[rnd := rx_attrs fl e (r_rule rx)]> (e_nodes st)) (e_arcs st) (e_smap st) (next_num (e_next st))).
    destruct (arc_phase true rnd (r_lhs rx) st1) as (Hn1 & Hm1 & Hx1 & Ha1);
      [done|intros s ?; apply Hsp; by apply elem_of_union_l| |].
    { intros ns. cbn. destruct (e_arcs st !! (ns, rnd)) as [a|] eqn:E; [|done]. by apply F4 in E as [_ ?]. }
    set (st2 := foldl (arc_step (λ ns, arc_key true ns rnd) (arc_role true)) st1 (map_to_list (r_lhs rx))) in *.
    destruct (arc_phase false rnd (r_rhs rx) st2) as (Hn2 & Hm2 & Hx2 & Ha2);
      [done|intros s ?; apply Hsp; by apply elem_of_union_r| |].
    { intros ns. destruct (e_arcs st2 !! arc_key false ns rnd) as [a|] eqn:E; [|done].
      apply Ha1 in E as [E|(s' & c' & u' & _ & Hu' & [= -> ->] & _)]; [cbn in E; by apply F4 in E as [? _]|by apply F1 in Hu']. }
    set (st3 := foldl (arc_step (λ ns, arc_key false ns rnd) (arc_role false)) st2 (map_to_list (r_rhs rx))) in *.
    assert (∀ e0 rx0, (e0, rx0) ∈ D → e0 ≠ e) as HDne.
    { intros e0 rx0 Hin ->. apply HeD. apply elem_of_list_fmap. by exists (e, rx0). }
    assert (∀ e0 rx0, (e0, rx0) ∈ D → (<[e := rnd]> R) !! e0 = R !! e0) as HR'.
    { intros e0 rx0 Hin. rewrite lookup_insert_ne; [done|]. intros <-. by eapply HDne. }
    split; [split|by rewrite Hx2, Hx1].
    - by rewrite Hm2.
    - intros n nd. rewrite Hn2, Hn1. cbn [st1 e_nodes]. rewrite lookup_insert_Some, Hnodes. split.
      + intros [[<- <-]|[Hne [(s & Hs & ->)|(e0 & rx0 & Hin & He0 & ->)]]].
        * right. exists e, rx. split; [apply elem_of_snoc_r|]. by rewrite lookup_insert.
        * left. eauto.
        * right. exists e0, rx0. split; [by apply elem_of_snoc_l|]. by rewrite (HR' e0 rx0).
      + intros [(s & Hs & ->)|(e0 & rx0 & [Hin|Hq]%elem_of_snoc & He0 & ->)].
        * right. split; [intros <-; by apply F1 in Hs|]. left. eauto.
        * rewrite (HR' e0 rx0) in He0 by done. right. split; [intros <-; by apply F2 in He0|]. right. eauto.
        * injection Hq as -> ->. rewrite lookup_insert in He0. injection He0 as <-. by left.
    - intros k a. rewrite Ha2, Ha1. cbn [st1 e_arcs]. rewrite Harcs. unfold arc_spec. split.
      + intros [[(inc & e0 & rx0 & s & c & ns & nr & Hin & He0 & ?)|(s & c & ns & Hin & Hsn & -> & ->)]
               |(s & c & ns & Hin & Hsn & -> & ->)].
        * exists inc, e0, rx0, s, c, ns, nr. split; [by apply elem_of_snoc_l|]. by rewrite (HR' e0 rx0).
        * exists true, e, rx, s, c, ns, rnd. split; [apply elem_of_snoc_r|]. by rewrite lookup_insert.
        * exists false, e, rx, s, c, ns, rnd. split; [apply elem_of_snoc_r|]. by rewrite lookup_insert.
      + intros (inc & e0 & rx0 & s & c & ns & nr & [Hin|Hq]%elem_of_snoc & He0 & Hs & Hc & -> & ->).
        * rewrite (HR' e0 rx0) in He0 by done. left. left. by exists inc, e0, rx0, s, c, ns, nr.
        * injection Hq as -> ->. rewrite lookup_insert in He0. injection He0 as <-.
          destruct inc; [left; right|right]; by exists s, c, ns.
    - intros e0. rewrite lookup_insert_is_Some', fmap_app, elem_of_app, HRdom. cbn. rewrite elem_of_list_singleton.
      split; intros [?|?]; auto.
    - intros e1 e2 n. rewrite !lookup_insert_Some.
      intros [[<- <-]|[? H1]] [[<- Hq]|[? H2]]; try done.
      + by apply F2 in H2.
      + subst n. by apply F2 in H1.
      + eauto.
    - intros s e0 n Hs. rewrite lookup_insert_Some. intros [[<- <-]|[_ He0]]; [by apply F1 in Hs|eauto].
    - intros s n Hs. rewrite Hx2, Hx1. cbn [st1 e_next]. eapply sp_mode_mono; [|by apply HMm].
      unfold next_num. destruct (f_int fl); lia.
    - intros e0 n. rewrite Hx2, Hx1. cbn [st1 e_next]. rewrite lookup_insert_Some. intros [[<- <-]|[_ He0]].
      + unfold rx_mode, rnd, rx_nid, next_num. destruct (f_int fl); [|done]. eexists. split; [done|lia].
      + eapply rx_mode_mono; [|by apply HRm]. unfold next_num. destruct (f_int fl); lia.
  Qed.
End export.

(** * the exported graph *)
Record bip_spec (fl : bflags) (H : net) (G : bgraph) (Ms Rs : gmap string nid) : Prop := {
  bs_nodes : ∀ n nd, b_nodes G !! n = Some nd ↔
               (∃ s, Ms !! s = Some n ∧ nd = sp_attrs fl H s) ∨
               (∃ e rx, edges H !! e = Some rx ∧ Rs !! e = Some n ∧ nd = rx_attrs fl e (r_rule rx));
  bs_arcs : ∀ k a, b_arcs G !! k = Some a ↔
               ∃ inc e rx s c ns nr, edges H !! e = Some rx ∧ Rs !! e = Some nr ∧ Ms !! s = Some ns ∧
                                     rside inc rx !! s = Some c ∧ k = arc_key inc ns nr ∧ a = arc_attrs fl c (arc_role inc);
  bs_Rdom : ∀ e, is_Some (Rs !! e) ↔ is_Some (edges H !! e);
  bs_Rinj : ∀ e e' n, Rs !! e = Some n → Rs !! e' = Some n → e = e';
  bs_Minj : ∀ s s' n, Ms !! s = Some n → Ms !! s' = Some n → s = s';
  bs_disj : ∀ s e n, Ms !! s = Some n → Rs !! e = Some n → False;
  bs_Mocc : ∀ s, s ∈ occurring H → is_Some (Ms !! s);
  bs_Mstr : f_int fl = false → ∀ s n, Ms !! s = Some n → n = inr (default "" (f_sp fl) +:+ s);
  bs_Rstr : f_int fl = false → ∀ e n, Rs !! e = Some n → n = inr (default "" (f_rp fl) +:+ e)
}.

(** the reaction nodes are numbered in the order of the list (with string ids the number is not part of the id) *)
Lemma export_fold fl H (l : list (string * rxn)) : NoDup l.*1 →
  (∀ e rx, (e, rx) ∈ l → (∀ s, s ∈ rxn_species rx → is_Some (sp_map fl H !! s)) ∧
                         (f_int fl = false → ∀ s n, sp_map fl H !! s = Some n → n ≠ inr (default "" (f_rp fl) +:+ e))) →
  ∀ st R D, RxInv fl H st R D → (∀ e, e ∈ l.*1 → e ∉ D.*1) →
  ∃ R', RxInv fl H (foldl (export_rxn fl H) st l) R' (D ++ l) ∧
        (∀ j e rx, l !! j = Some (e, rx) →
           R' !! e = Some (rx_nid fl e (e_next st + if f_int fl then N.of_nat j else 0)%N)) ∧
        (∀ e, e ∉ l.*1 → R' !! e = R !! e).
Proof.
  induction l as [|[e rx] l IH]; intros Hnd Hok st R D HI Hfresh.
  - exists R. rewrite app_nil_r. split; [done|]. split; [|done]. intros j ?? Hj. by rewrite lookup_nil in Hj.
  - rewrite fmap_cons in Hnd. apply NoDup_cons in Hnd as [He Hnd]. cbn [fst] in He. cbn [foldl].
    destruct (Hok e rx) as [Hsp Hnm]; [by left|].
    pose proof (export_rxn_RxInv fl H st R D e rx HI ltac:(apply Hfresh; by left) Hsp Hnm) as [HI' Hn].
    destruct (IH Hnd) with (st := export_rxn fl H st (e, rx)) (R := <[e := rx_nid fl e (e_next st)]> R) (D := D ++ [(e, rx)])
      as (R' & HR' & Hnum & Hkeep).
    + intros e' rx' Hin. apply Hok. by right.
    + done.
    + intros e' He'. rewrite fmap_app, elem_of_app. cbn. rewrite elem_of_list_singleton. intros [Hd|Hq].
      * eapply Hfresh; [|done]. by right.
      * by subst e'.
    + exists R'. split; [by rewrite <-(assoc_L (++)) in HR'|]. split.
      * intros [|j] e' rx' Hj; cbn in Hj.
        -- assert (e' = e ∧ rx' = rx) as [-> ->] by (by simplify_eq). etrans; [by apply Hkeep|].
           rewrite lookup_insert. f_equal. f_equal. destruct (f_int fl); lia.
        -- etrans; [by eapply Hnum|]. rewrite Hn. f_equal. f_equal. unfold next_num. destruct (f_int fl); lia.
      * intros e' He'. rewrite fmap_cons in He'. apply not_elem_of_cons in He' as [Hne He']. etrans; [by apply Hkeep|].
        by rewrite lookup_insert_ne.
Qed.

Lemma export_state_RxInv fl H : wf_species H → bip_names_ok fl H →
  ∃ R, RxInv fl H (export_state fl H) R (sort_by_key (map_to_list (edges H))) ∧
       ∀ j e rx, sort_by_key (map_to_list (edges H)) !! j = Some (e, rx) →
         R !! e = Some (rx_nid fl e (e_next (sp_state fl H) + if f_int fl then N.of_nat j else 0)%N).
Proof.
  intros Hwf Hnames. unfold export_state. fold (sp_state fl H).
  set (l := sort_by_key (map_to_list (edges H))).
  assert (l ≡ₚ map_to_list (edges H)) as Hperm by apply merge_sort_Permutation.
  destruct (export_fold fl H l) with (st := sp_state fl H) (R := (∅ : gmap string nid)) (D := @nil (string * rxn))
    as (R & HI & Hnum & _); [| | | |by exists R].
  - rewrite Hperm. apply NoDup_fst_map_to_list.
  - intros e rx Hin. rewrite Hperm in Hin. apply elem_of_map_to_list in Hin. split.
    + intros s Hs. apply sp_map_occurring; [done|]. apply elem_of_occurring. eauto.
    + intros Hint s n Hs. pose proof (spi_mode _ _ _ (sp_state_SpInv fl H) s n Hs) as Hm. unfold sp_mode in Hm. rewrite Hint in Hm.
      subst n. intros [= Hq]. destruct Hnames as [?|Hnm]; [congruence|].
      apply (Hnm s (sp_map_species fl H s _ Hs) e); [|done]. apply elem_of_dom. eauto.
  - apply RxInv_init.
  - intros e _. cbn. apply not_elem_of_nil.
Qed.

Lemma export_spec fl H : wf_species H → bip_names_ok fl H →
  ∃ Ms Rs, bip_spec fl H (hypergraph_to_bipartite fl H) Ms Rs.
Proof.
  intros Hwf Hnames. destruct (export_state_RxInv fl H Hwf Hnames) as (R & HI & _). unfold hypergraph_to_bipartite.
  assert (∀ e rx, (e, rx) ∈ sort_by_key (map_to_list (edges H)) ↔ edges H !! e = Some rx) as Hl.
  { intros e rx. unfold sort_by_key. by rewrite merge_sort_Permutation, elem_of_map_to_list. }
  destruct HI as [Hsm Hnodes Harcs HRdom HRinj Hdisj HMm HRm].
  exists (sp_map fl H), R. split; cbn [b_nodes b_arcs].
  - intros n nd. rewrite Hnodes. by setoid_rewrite Hl.
  - intros k a. rewrite Harcs. unfold arc_spec. by setoid_rewrite Hl.
  - intros e. rewrite HRdom. rewrite elem_of_list_fmap. split.
    + intros ([e' rx] & -> & Hin%Hl). eauto.
    + intros [rx Hrx%Hl]. by exists (e, rx).
  - done.
  - apply sp_map_inj.
  - done.
  - intros s Hs. by apply sp_map_occurring.
  - intros Hint s n Hs. specialize (HMm s n Hs). unfold sp_mode in HMm. by rewrite Hint in HMm.
  - intros Hint e n He. specialize (HRm e n He). unfold rx_mode in HRm. by rewrite Hint in HRm.
Qed.
