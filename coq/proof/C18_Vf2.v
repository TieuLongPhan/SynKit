(** C18 — the reference enumerator [auts] of the model (compared with VF2's self-isomorphisms on every case) lists, without
    duplicates, exactly the assignments that are structure-preserving self-maps of the view. *)
From Coq Require Import List NArith ZArith Bool Arith Lia Permutation.
From SK Require Import lib.IRCore lib.C18_IRValid lib.C18_IRLeaves model.C18_Model proof.C18_Spec proof.C18_Graph proof.C18_Label proof.C18_Aut.
Import ListNotations.

Lemma eattr_eqb_eq a b : eattr_eqb a b = true <-> a = b.
Proof.
  destruct a, b. unfold eattr_eqb. simpl. rewrite andb_true_iff, !Z.eqb_eq. split; [intros [-> ->]; auto|intros E; inversion E; auto].
Qed.
Lemma oattr_eqb_eq a b : oattr_eqb a b = true <-> a = b.
Proof.
  destruct a as [a|], b as [b|]; simpl; try (split; [discriminate|discriminate]); [|tauto].
  rewrite eattr_eqb_eq. split; [intros ->; auto|intros E; inversion E; auto].
Qed.

(** pointwise reading of an assignment list (pattern node, host node) *)
Definition pw (g : vgraph) (m : list (N * N)) : Prop :=
  NoDup (map snd m) /\
  (forall ph, In ph m -> In (snd ph) (node_ids g) /\ kind_of g (fst ph) = kind_of g (snd ph)) /\
  (forall ph ph', In ph m -> In ph' m -> find_arc g (fst ph) (fst ph') = find_arc g (snd ph) (snd ph')).

Inductive mvalid (g : vgraph) : list (N * N) -> Prop :=
| mv_nil : mvalid g []
| mv_cons p h acc : mvalid g acc -> In h (node_ids g) -> aut_ok g p h acc = true -> mvalid g ((p, h) :: acc).

Lemma aut_ok_spec g p h acc : aut_ok g p h acc = true <->
  kind_of g p = kind_of g h /\ ~ In h (map snd acc) /\ find_arc g p p = find_arc g h h /\
  (forall ph, In ph acc -> find_arc g p (fst ph) = find_arc g h (snd ph) /\ find_arc g (fst ph) p = find_arc g (snd ph) h).
Proof.
  unfold aut_ok. rewrite !andb_true_iff, Z.eqb_eq, negb_true_iff, oattr_eqb_eq, forallb_forall.
  assert (F : existsb (fun ph : N * N => N.eqb (snd ph) h) acc = false <-> ~ In h (map snd acc)).
  { rewrite <- not_true_iff_false, existsb_exists. split.
    - intros H I. apply H. apply in_map_iff in I. destruct I as (ph & E & I). exists ph. split; auto. apply N.eqb_eq. auto.
    - intros H (ph & I & E). apply H. apply N.eqb_eq in E. subst. apply in_map. auto. }
  rewrite F. unfold pair_ok. split.
  - intros [[[H1 H2] H3] H4]. repeat split; auto; specialize (H4 _ H); apply andb_prop in H4; destruct H4 as [A B];
      apply oattr_eqb_eq; auto.
  - intros (H1 & H2 & H3 & H4). repeat split; auto. intros ph I. destruct (H4 _ I) as [A B].
    apply andb_true_iff. split; apply oattr_eqb_eq; auto.
Qed.

Lemma mvalid_pw g m : mvalid g m <-> pw g m.
Proof.
  split.
  - induction 1 as [|p h acc Hv (IH1 & IH2 & IH3) Hh Hok].
    + split; [constructor|]. split; [intros ? []|intros ? ? []].
    + apply aut_ok_spec in Hok. destruct Hok as (Hk & Hf & Hl & Hp). split; [|split].
      * simpl. constructor; auto.
      * intros ph [<-|I]; simpl; auto.
      * intros ph ph' [<-|I] [<-|I']; simpl; auto.
        -- apply (Hp _ I').
        -- apply (Hp _ I).
  - induction m as [|[p h] acc IH]; intros (H1 & H2 & H3); [constructor|].
    simpl in H1. inversion H1; subst. constructor.
    + apply IH. split; [auto|]. split; intros; [apply H2|apply H3]; simpl; auto.
    + apply (H2 (p, h)). left. auto.
    + apply aut_ok_spec. split; [apply (H2 (p, h)); left; auto|]. split; [auto|]. split.
      * apply (H3 (p, h) (p, h)); left; auto.
      * intros ph I. split; [apply (H3 (p, h) ph)|apply (H3 ph (p, h))]; simpl; auto.
Qed.

(* ---------------- the enumerator ---------------- *)
Lemma aut_ext_shape g ps : forall acc m, In m (aut_ext g ps acc) ->
  exists hs, length hs = length ps /\ m = rev (combine ps hs) ++ acc.
Proof.
  induction ps as [|p ps IH]; intros acc m Hin; simpl in *.
  - destruct Hin as [<-|[]]. exists []. auto.
  - apply in_flat_map in Hin. destruct Hin as (h & Hh & Hin).
    destruct (aut_ok g p h acc); [|destruct Hin].
    apply IH in Hin. destruct Hin as (hs & Hl & ->). exists (h :: hs). split; [simpl; lia|].
    simpl. rewrite <- app_assoc. reflexivity.
Qed.
Lemma aut_ext_sound g ps : forall acc m, mvalid g acc -> In m (aut_ext g ps acc) -> mvalid g m.
Proof.
  induction ps as [|p ps IH]; intros acc m Hv Hin; simpl in *.
  - destruct Hin as [<-|[]]. exact Hv.
  - apply in_flat_map in Hin. destruct Hin as (h & Hh & Hin).
    destruct (aut_ok g p h acc) eqn:Hok; [|destruct Hin].
    eapply IH; [|exact Hin]. constructor; auto.
Qed.
Lemma mvalid_app_inv g l acc : mvalid g (l ++ acc) -> mvalid g acc.
Proof. induction l as [|[p h] l IH]; simpl; auto. intros H. inversion H; subst. auto. Qed.
Lemma aut_ext_complete g ps : forall hs acc, length hs = length ps ->
  mvalid g (rev (combine ps hs) ++ acc) -> In (rev (combine ps hs) ++ acc) (aut_ext g ps acc).
Proof.
  induction ps as [|p ps IH]; intros hs acc Hl Hv.
  - destruct hs; [|discriminate]. simpl. left. reflexivity.
  - destruct hs as [|h hs]; [discriminate|]. simpl in *. rewrite <- app_assoc in *. simpl in *.
    assert (Hv' : mvalid g ((p, h) :: acc)) by (eapply mvalid_app_inv; exact Hv).
    inversion Hv'; subst. apply in_flat_map. exists h. split; auto.
    match goal with H : aut_ok g p h acc = true |- _ => rewrite H end.
    apply IH; [lia | exact Hv].
Qed.

Lemma aut_ext_nodup g ps : forall acc, NoDup (node_ids g) -> NoDup (aut_ext g ps acc).
Proof.
  induction ps as [|p ps IH]; intros acc Hnd; simpl; [constructor; [intros []|constructor]|].
  apply NoDup_flat_map_disj; auto.
  - intros h _. destruct (aut_ok g p h acc); [apply IH; auto|constructor].
  - intros h h' m _ _ Hne H1 H2.
    destruct (aut_ok g p h acc); [|destruct H1]. destruct (aut_ok g p h' acc); [|destruct H2].
    apply aut_ext_shape in H1, H2. destruct H1 as (hs & L1 & E1), H2 as (hs' & L2 & E2). rewrite E1 in E2.
    assert (Hl : length (rev (combine ps hs)) = length (rev (combine ps hs'))).
    { rewrite !rev_length, !combine_length. lia. }
    destruct (app_inv_length _ _ _ _ Hl E2) as [_ Ex]. inversion Ex. auto.
Qed.

(* ---------------- the assignment order is a permutation of the nodes ---------------- *)
Lemma greedy_perm g fuel : forall chosen remaining, NoDup remaining ->
  Permutation (greedy g fuel chosen remaining) (rev chosen ++ remaining).
Proof.
  induction fuel as [|f IH]; intros chosen remaining Hnd; simpl; auto.
  destruct remaining as [|r0 rem]; [rewrite app_nil_r; auto|].
  set (v := match find (fun v => existsb (is_nbr g v) chosen) (r0 :: rem) with Some v => v | None => r0 end).
  assert (Hv : In v (r0 :: rem)).
  { unfold v. destruct (find _ (r0 :: rem)) eqn:E; [apply find_some in E; tauto|left; auto]. }
  eapply perm_trans; [apply IH; apply NoDup_filter; auto|].
  simpl rev. rewrite <- app_assoc. apply Permutation_app_head. exact (rest_perm v (r0 :: rem) Hnd Hv).
Qed.

Lemma aut_order_perm g : NoDup (node_ids g) -> Permutation (aut_order g) (node_ids g).
Proof. intros H. unfold aut_order. apply (greedy_perm g _ [] _ H). Qed.

(* ---------------- [auts] = the structure-preserving self-maps ---------------- *)
Lemma in_combine_map {A B} (f : A -> B) l ph : In ph (combine l (map f l)) -> In (fst ph) l /\ snd ph = f (fst ph).
Proof. induction l as [|x l IH]; simpl; [tauto|]. intros [<-|I]; simpl; auto. destruct (IH I); auto. Qed.
Lemma map_snd_combine {A B} (l : list A) (l' : list B) : length l = length l' -> map snd (combine l l') = l'.
Proof. revert l'. induction l as [|x l IH]; intros [|y l'] H; simpl in *; try discriminate; auto. f_equal. apply IH. lia. Qed.
Lemma in_combine_nth {A B} (l : list A) (l' : list B) i dA dB : length l = length l' -> i < length l ->
  In (nth i l dA, nth i l' dB) (combine l l').
Proof.
  revert l' i. induction l as [|x l IH]; intros [|y l'] i Hl Hi; simpl in *; try lia; try discriminate.
  destruct i; auto. right. apply IH; lia.
Qed.

Theorem auts_spec g : wf g ->
  NoDup (auts g) /\
  (forall s, is_aut g s -> In (rev (combine (aut_order g) (map s (aut_order g)))) (auts g)) /\
  (forall m, In m (auts g) -> exists s, is_aut g s /\ m = rev (combine (aut_order g) (map s (aut_order g)))).
Proof.
  intros Hw. pose proof (aut_order_perm g (proj1 Hw)) as Hp. set (ps := aut_order g) in *.
  assert (Hps : NoDup ps) by (eapply Permutation_NoDup; [apply Permutation_sym; exact Hp|apply Hw]).
  split; [apply aut_ext_nodup; apply Hw|]. split.
  - intros s (Hinj & Hin & Hk & Ha). unfold auts. fold ps.
    rewrite <- (app_nil_r (rev (combine ps (map s ps)))). apply aut_ext_complete; [apply map_length|].
    rewrite app_nil_r. apply mvalid_pw.
    assert (Hel : forall ph, In ph (rev (combine ps (map s ps))) -> In (fst ph) (node_ids g) /\ snd ph = s (fst ph)).
    { intros ph I. apply in_rev in I. destruct (in_combine_map _ _ _ I) as [I1 I2]. split; auto. apply (Permutation_in _ Hp I1). }
    split; [|split].
    + rewrite map_rev, map_snd_combine by (rewrite map_length; auto). apply NoDup_rev.
      apply NoDup_map_inj_on; auto. intros x y Hx Hy. apply Hinj; apply (Permutation_in _ Hp); auto.
    + intros ph I. destruct (Hel _ I) as [I1 ->]. split; auto. symmetry. auto.
    + intros ph ph' I I'. destruct (Hel _ I) as [I1 ->]. destruct (Hel _ I') as [I1' ->]. symmetry. auto.
  - intros m Hm. unfold auts in Hm. fold ps in Hm.
    destruct (aut_ext_shape g ps [] m Hm) as (hs & Hl & E). rewrite app_nil_r in E.
    pose proof (aut_ext_sound g ps [] m (mv_nil g) Hm) as Hv. apply mvalid_pw in Hv. subst m.
    destruct Hv as (H1 & H2 & H3).
    rewrite map_rev, map_snd_combine in H1 by auto.
    assert (Hndh : NoDup hs) by (rewrite <- (rev_involutive hs); apply NoDup_rev; auto).
    assert (Hinh : forall i, i < length ps -> In (nth i ps 0%N, nth i hs 0%N) (rev (combine ps hs))).
    { intros i Hi. apply -> in_rev. apply in_combine_nth; auto. }
    assert (Hph : Permutation hs (node_ids g)).
    { apply NoDup_Permutation_bis; auto.
      - rewrite <- (Permutation_length Hp). lia.
      - intros h Hh. destruct (In_nth hs h 0%N Hh) as (i & Hi & <-).
        apply (H2 (nth i ps 0%N, nth i hs 0%N)). apply Hinh. lia. }
    exists (seqmap ps hs). split.
    + apply seq_aut; auto.
      * intros i Hi. apply (H2 (nth i ps 0%N, nth i hs 0%N)). auto.
      * intros i j Hi Hj. apply (H3 (nth i ps 0%N, nth i hs 0%N) (nth j ps 0%N, nth j hs 0%N)); auto.
    + rewrite map_seqmap; auto.
Qed.
