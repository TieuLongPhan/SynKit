(** C03 — which partner _explicit_h chooses INSIDE a hydrogen-transfer group, in closed form.

    The code walks the donors in visiting order and, for every hydrogen a donor has to give, takes the first recipient
    that still has room (first fit).  Proved: the list of (donor, recipient) pairs of one group is exactly

        combine (donors, each repeated as often as its surplus) (recipients, each repeated as often as its deficit)

    i.e. the k-th hydrogen given goes to the k-th free place; the pairing exists iff the places suffice.  So the pairing
    is a function of the two visiting orders alone — nothing else of the graph enters. *)
From Coq Require Import List NArith ZArith Bool Lia.
From SK Require Import lib.Tok lib.LGraph model.C03_Model model.C03_Order proof.C03_Proof proof.C03_Glue proof.C03_ExplicitH
                       proof.C03_ExplicitTotal.
Import ListNotations.
Local Open Scope Z_scope.

(** the free places of a working list of recipients *)
Definition rslots (rs : list (N * Z)) : list N := flat_map (fun p => repeat (fst p) (Z.to_nat (snd p))) rs.

Lemma take_recip_slots rs : forall x rs', take_recip rs = Some (x, rs') -> rslots rs = x :: rslots rs'.
Proof.
  induction rs as [|[r cap] rest IH]; simpl; intros x rs' H; [discriminate|].
  destruct (Z.ltb_spec 0 cap) as [Hp|Hp].
  - inversion H; subst. unfold rslots. simpl. replace (Z.to_nat cap) with (S (Z.to_nat (cap - 1))) by lia. reflexivity.
  - destruct (take_recip rest) as [[x' rest']|] eqn:E; [|discriminate]. inversion H; subst.
    unfold rslots in *. simpl. replace (Z.to_nat cap) with O by lia. simpl. exact (IH x rest' eq_refl).
Qed.
Lemma take_recip_none_slots rs : take_recip rs = None -> rslots rs = [].
Proof.
  induction rs as [|[r cap] rest IH]; simpl; intros H; [reflexivity|].
  destruct (Z.ltb_spec 0 cap) as [Hp|Hp]; [discriminate|].
  destruct (take_recip rest) as [[x' rest']|] eqn:E; [discriminate|].
  unfold rslots in *. simpl. replace (Z.to_nat cap) with O by lia. simpl. exact (IH eq_refl).
Qed.

Lemma combine_app {A B} (a1 a2 : list A) (b1 b2 : list B) : length a1 = length b1 ->
  combine (a1 ++ a2) (b1 ++ b2) = combine a1 b1 ++ combine a2 b2.
Proof.
  revert b1. induction a1 as [|x r IH]; intros [|y s] H; simpl in *; try discriminate; [reflexivity|].
  rewrite IH by lia. reflexivity.
Qed.
Lemma combine_repeat {B} (d : N) (l : list B) : combine (repeat d (length l)) l = map (pair d) l.
Proof. induction l as [|y s IH]; simpl; [reflexivity|]. rewrite IH. reflexivity. Qed.
Lemma combine_short {A B} (a : list A) (b s : list B) : length a = length b -> combine a (b ++ s) = combine a b.
Proof.
  revert b. induction a as [|x r IH]; intros [|y t] H; simpl in *; try discriminate; [reflexivity|].
  rewrite IH by lia. reflexivity.
Qed.

Lemma donate_zip d k : forall rs acc rs' acc', donate d k rs acc = Some (rs', acc') ->
  exists pre, rslots rs = pre ++ rslots rs' /\ length pre = k /\ acc' = acc ++ map (pair d) pre.
Proof.
  induction k as [|k IH]; intros rs acc rs' acc' H.
  - simpl in H. inversion H; subst. exists []. simpl. rewrite app_nil_r. auto.
  - cbn [donate] in H. destruct (take_recip rs) as [[r rs1]|] eqn:E; [|discriminate].
    destruct (IH _ _ _ _ H) as (pre & P1 & P2 & P3). exists (r :: pre). split; [|split].
    + rewrite (take_recip_slots rs r rs1 E), P1. reflexivity.
    + simpl. lia.
    + rewrite P3, <- app_assoc. reflexivity.
Qed.

Lemma slots_cons f d r : slots f (d :: r) = repeat d (Z.to_nat (f d)) ++ slots f r.
Proof. reflexivity. Qed.

Lemma donor_fold_zip dl ds : forall rs acc rs' acc', fold_left (donor_step dl) ds (Some (rs, acc)) = Some (rs', acc') ->
  exists pre, rslots rs = pre ++ rslots rs' /\ length pre = length (slots dl ds) /\ acc' = acc ++ combine (slots dl ds) pre.
Proof.
  induction ds as [|d r IH]; cbn [fold_left]; intros rs acc rs' acc' H.
  - inversion H; subst. exists []. simpl. rewrite app_nil_r. auto.
  - unfold donor_step at 2 in H. destruct (donate d (Z.to_nat (dl d)) rs acc) as [[rs1 acc1]|] eqn:E;
      [|rewrite donor_fold_none in H; discriminate].
    destruct (donate_zip d _ _ _ _ _ E) as (pre1 & A1 & A2 & A3).
    destruct (IH _ _ _ _ H) as (pre2 & B1 & B2 & B3).
    exists (pre1 ++ pre2). rewrite slots_cons. split; [|split].
    + rewrite A1, B1, app_assoc. reflexivity.
    + rewrite !app_length, repeat_length. lia.
    + rewrite combine_app by (rewrite repeat_length; lia). rewrite <- A2, combine_repeat, B3, A3, <- app_assoc. reflexivity.
Qed.

Lemma rslots_map (f : N -> Z) l : rslots (map (fun n => (n, f n)) l) = slots f l.
Proof. unfold rslots, slots. induction l as [|x r IH]; simpl; [reflexivity|]. rewrite IH. reflexivity. Qed.

Lemma zip_migrations_eq T comp :
  zip_migrations T comp =
  combine (slots (dl_of T) (filter (fun n => 0 <? dl_of T n) comp)) (slots (fun n => - dl_of T n) (filter (fun n => dl_of T n <? 0) comp)).
Proof. reflexivity. Qed.

(** first fit = zip *)
Lemma donor_fold_zip_all dl (f : N -> Z) ds recs rs acc :
  fold_left (donor_step dl) ds (Some (map (fun n => (n, f n)) recs, [])) = Some (rs, acc) ->
  acc = combine (slots dl ds) (slots f recs).
Proof.
  intros E. destruct (donor_fold_zip _ _ _ _ _ _ E) as (pre & P1 & P2 & P3).
  rewrite (rslots_map f) in P1. rewrite P1, P3, combine_short by (symmetry; exact P2). reflexivity.
Qed.

Theorem first_fit_zip T comp ms : migrations_of T comp = Some ms -> ms = zip_migrations T comp.
Proof.
  rewrite migrations_of_unfold, zip_migrations_eq.
  destruct (fold_left _ _ _) as [[rs acc]|] eqn:E; [|discriminate]. intros [= <-].
  exact (donor_fold_zip_all (dl_of T) (fun n => - dl_of T n) _ _ _ _ E).
Qed.

(** the closed form of the pairing of one group *)
Theorem migrations_of_closed T comp :
  migrations_of T comp = if comp_balancedb T comp then Some (zip_migrations T comp) else None.
Proof.
  pose proof (migrations_of_total T comp) as Ht. rewrite comp_okb_balancedb in Ht.
  destruct (migrations_of T comp) as [ms|] eqn:E; rewrite Ht; [|reflexivity].
  rewrite (first_fit_zip T comp ms E). reflexivity.
Qed.

Lemma pairs_eqb_refl l : pairs_eqb l l = true.
Proof. induction l as [|[a b] r IH]; simpl; [reflexivity|]. unfold pair_eqb. simpl. rewrite !N.eqb_refl, IH. reflexivity. Qed.

(** the bit the correspondence evaluates on every graph is always true *)
Theorem zip_okb_true ord T : zip_okb ord T = true.
Proof.
  unfold zip_okb. apply forallb_forall. intros c _. destruct (migrations_of T (ord c)) as [ms|] eqn:E; [|reflexivity].
  rewrite (first_fit_zip T (ord c) ms E). apply pairs_eqb_refl.
Qed.

(** all groups together: the list of migrations of _explicit_h is the concatenation of the groups' zips *)
Lemma comp_foldo_zip ord T cs : forall acc res, fold_left (comp_step_ord ord T) cs (Some acc) = Some res ->
  res = acc ++ flat_map (fun c => zip_migrations T (ord c)) cs.
Proof.
  induction cs as [|c r IH]; cbn [fold_left]; intros acc res H.
  - inversion H; subst. simpl. rewrite app_nil_r. reflexivity.
  - unfold comp_step_ord at 2 in H. destruct (migrations_of T (ord c)) as [ms|] eqn:E; [|rewrite comp_foldo_none in H; discriminate].
    rewrite (IH _ _ H), (first_fit_zip T (ord c) ms E). simpl. rewrite <- app_assoc. reflexivity.
Qed.

Theorem explicit_h_ord_migrations ord T T' ms : explicit_h_ord ord T = Some (T', ms) ->
  ms = flat_map (fun c => zip_migrations T (ord c)) (components (pair_to_nodes T)) /\ T' = apply_migrations T ms.
Proof.
  unfold explicit_h_ord. destruct (all_migrations_ord ord T) as [l|] eqn:E; [|discriminate]. intros H. inversion H; subst.
  split; [|reflexivity]. unfold all_migrations_ord in E. exact (comp_foldo_zip ord T _ [] ms E).
Qed.
