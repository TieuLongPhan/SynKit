(** C09 — BalanceReactionCheck on records (model/C09_Records.v). *)
From Coq Require Import List NArith ZArith Bool Permutation.
From SK Require Import lib.StrJoin model.C09_Strings model.C09_Records.
From SK Require model.C08_Model proof.C08_Value proof.C09_Lists.
Import ListNotations.

Lemma seqb_eq a b : seqb a b = true <-> a = b.
Proof. apply C08_Value.str_eqb_spec. Qed.
Lemma seqb_refl a : seqb a a = true.
Proof. apply seqb_eq. reflexivity. Qed.
Lemma seqb_neq a b : a <> b -> seqb a b = false.
Proof. intros H. destruct (seqb a b) eqn:E; [apply seqb_eq in E; contradiction|reflexivity]. Qed.

Lemma rget_rset_same k v r : rget k (rset k v r) = Some v.
Proof.
  induction r as [|[k' v'] r IH]; simpl; [rewrite seqb_refl; reflexivity|].
  destruct (seqb k k') eqn:E; simpl; [rewrite seqb_refl; reflexivity|rewrite E; exact IH].
Qed.
Lemma rget_rset_other k k' v r : k' <> k -> rget k' (rset k v r) = rget k' r.
Proof.
  intros Hne. induction r as [|[k2 v2] r IH]; simpl; [rewrite (seqb_neq _ _ Hne); reflexivity|].
  destruct (seqb k k2) eqn:E; simpl.
  - apply seqb_eq in E. subst k2. rewrite (seqb_neq _ _ Hne). reflexivity.
  - destruct (seqb k' k2); [reflexivity|exact IH].
Qed.
Lemma rset_keys k v r : map fst (rset k v r) = map fst r \/ (rget k r = None /\ map fst (rset k v r) = map fst r ++ [k]).
Proof.
  induction r as [|[k' v'] r IH]; simpl; [right; split; reflexivity|].
  destruct (seqb k k') eqn:E; simpl.
  - left. apply seqb_eq in E. subst. reflexivity.
  - destruct IH as [IH|[N0 IH]]; [left|right; split; [exact N0|]]; rewrite IH; reflexivity.
Qed.

(** dict_balance_check: the value stored under "balanced" is the verdict of THIS record's reaction - also when the input
    already carried a "balanced" key (repair 7b06bf6) -, every other key keeps its value, the key order is kept and
    "balanced" is appended only when it was absent *)
Theorem dict_balance_check_spec formula r col r' : dict_balance_check formula r col = Some r' ->
  exists s b, rget col r = Some (VS s) /\ rsmi_balance_check formula s = Some b /\
    rget BALANCED r' = Some (VB b) /\ (forall k, k <> BALANCED -> rget k r' = rget k r) /\
    (map fst r' = map fst r \/ (rget BALANCED r = None /\ map fst r' = map fst r ++ [BALANCED])).
Proof.
  unfold dict_balance_check. destruct (rget col r) as [[s| |]|] eqn:E; try discriminate.
  destruct (rsmi_balance_check formula s) as [b|] eqn:V; [|discriminate]. intros T. injection T as <-.
  exists s, b. split; [reflexivity|]. split; [exact V|]. split; [apply rget_rset_same|]. split.
  - intros k Hk. apply rget_rset_other. exact Hk.
  - apply rset_keys.
Qed.

Lemma all_some_spec {A} (l : list (option A)) res : all_some l = Some res -> l = map Some res.
Proof.
  revert res. induction l as [|[x|] l IH]; intros res E; simpl in E; [injection E as <-; reflexivity| |discriminate].
  destruct (all_some l) as [xs|]; [|discriminate]. injection E as <-. simpl. f_equal. apply IH. reflexivity.
Qed.

(** dicts_balance_check: every parsed record gives exactly one result, in input order; the two lists are a loss-free split and
    a result is in the first list exactly when the verdict of its reaction is True *)
Theorem dicts_balance_check_spec formula inp col A B : dicts_balance_check formula inp col = Some (A, B) ->
  exists rs res, parse_input inp col = Some rs /\
    Forall2 (fun r r' => dict_balance_check formula r col = Some r') rs res /\
    A = filter is_balanced res /\ B = filter (fun r => negb (is_balanced r)) res /\ Permutation (A ++ B) res /\
    (forall r r', In r' res -> dict_balance_check formula r col = Some r' ->
       exists s, rget col r = Some (VS s) /\ rsmi_balance_check formula s = Some (is_balanced r')).
Proof.
  unfold dicts_balance_check. destruct (parse_input inp col) as [rs|]; [|discriminate].
  destruct (all_some (map (fun r => dict_balance_check formula r col) rs)) as [res|] eqn:E; [|discriminate].
  intros T. injection T as <- <-. exists rs, res. split; [reflexivity|].
  apply all_some_spec in E. split; [|split; [reflexivity|split; [reflexivity|split]]].
  - revert res E. induction rs as [|r rs IH]; intros [|r' res] E; simpl in E; try discriminate; constructor.
    + injection E as E1 E2. exact E1.
    + apply IH. injection E as E1 E2. exact E2.
  - apply C09_Lists.filter_split_perm.
  - intros r r' _ D. destruct (dict_balance_check_spec formula r col r' D) as (s & b & E1 & E2 & E3 & _).
    exists s. split; [exact E1|]. unfold is_balanced. rewrite E3. destruct b; exact E2.
Qed.

(** parse_input: a string is wrapped, in a list every string is wrapped and every dict that has the column is kept, in order;
    nothing else survives *)
Theorem parse_input_spec col :
  (forall s, parse_input (InStr s) col = Some [[(col, VS s)]]) /\ parse_input InOther col = None /\
  (forall l, exists rs, parse_input (InList l) col = Some rs /\
     forall r, In r rs <-> exists it, In it l /\ ((exists s, it = IStr s /\ r = [(col, VS s)]) \/ (it = IDict r /\ rget col r <> None))).
Proof.
  split; [reflexivity|]. split; [reflexivity|]. intros l. eexists. split; [reflexivity|]. intros r. rewrite in_flat_map. split.
  - intros (it & I & J). exists it. split; [exact I|]. destruct it as [s|r0|]; simpl in J.
    + destruct J as [<-|[]]. left. exists s. split; reflexivity.
    + destruct (rget col r0) eqn:E; simpl in J; [|contradiction]. destruct J as [<-|[]]. right. split; [reflexivity|congruence].
    + contradiction.
  - intros (it & I & [(s & -> & ->)|(-> & Hn)]); eexists; (split; [exact I|]); simpl; [left; reflexivity|].
    destruct (rget col r); [left; reflexivity|congruence].
Qed.

(** non-vacuity: a record that already says "balanced": "old" gets the computed verdict at the same position *)
Example ex_dict_balance :
  dict_balance_check (fun x => Some x) [([105; 100]%N, VO 7); (BALANCED, VS [111]%N); ([114]%N, VS [67; 62; 62; 67]%N)] [114]%N
  = Some [([105; 100]%N, VO 7); (BALANCED, VB true); ([114]%N, VS [67; 62; 62; 67]%N)] /\
  dicts_balance_check (fun x => Some x) (InList [IStr [67; 62; 62; 67]%N; IOther; IDict [([120]%N, VO 1)]; IStr [67; 62; 62; 79]%N]) [114]%N
  = Some ([[([114]%N, VS [67; 62; 62; 67]%N); (BALANCED, VB true)]], [[([114]%N, VS [67; 62; 62; 79]%N); (BALANCED, VB false)]]).
Proof. vm_compute. split; reflexivity. Qed.
