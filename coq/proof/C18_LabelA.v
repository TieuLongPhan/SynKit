(** C18 — the label of an attribute selection read back.  By [label_readX] (proof/C18_Label.v) the label string of the generic
    canonicaliser determines, position by position, the printed node pieces and edge bits.  With injectivity of the pieces /
    bits on the selected attributes and a loop-free view (every bipartite view without a view-id collision), two leaves with
    the same label differ by a self-map that preserves the selected attributes: the second half of clause 4. *)
From Coq Require Import List NArith ZArith Bool Arith Lia Permutation.
From SK Require Import lib.IRSortKeys lib.IRCore lib.IRSearch lib.StrJoin lib.C18_IRValid lib.C18_IRLeaves model.C18_Model model.C18_AttrModel
  model.C18_SpAttrModel proof.C18_Order proof.C18_Spec proof.C18_Graph proof.C18_Canon proof.C18_Equiv proof.C18_Label proof.C18_Aut
  proof.C18_Invariant proof.C18_Count proof.C18_WL proof.C18_SpAttr proof.C18_Attr proof.C18_AttrEquiv.
From SK Require Import proof.C18_View proof.C18_NetBip proof.C18_Vf2 proof.C18_Orbits proof.C18_OrbSound proof.C18_OrbComplete proof.C18_OrbCanon.
From SK Require lib.IRInst.
Import ListNotations.

Lemma labelG_X g nv ev nek p : labelG g nv ev nek p = labelX (fun v => join COLON (map snd (nv v))) (bitG g ev nek) p.
Proof. reflexivity. Qed.

(* ---------------- the position-wise map between two leaves is a selected-attribute self-map ---------------- *)
Theorem seq_autG g nv ev r r' : wf g -> NoDup r -> NoDup r' ->
  Permutation r (node_ids g) -> Permutation r' (node_ids g) ->
  (forall i, i < length r -> nv (nth i r 0%N) = nv (nth i r' 0%N)) ->
  (forall i j, i < length r -> j < length r ->
     option_map ev (find_arc g (nth i r 0%N) (nth j r 0%N)) = option_map ev (find_arc g (nth i r' 0%N) (nth j r' 0%N))) ->
  is_autG g nv ev (seqmap r r').
Proof. intros _ Hr Hr' Hp Hp' Hk Ha. apply is_autG_pres. apply seq_pres; assumption. Qed.

Section ExactG.
Variables (g : vgraph) (nv : N -> list (Z * list N)) (ev : eattr -> list (Z * list N)) (nnk nek : nat).
Hypothesis Hw : wf g.
Let npiece := fun v => join COLON (map snd (nv v)).
Hypothesis Hpn : forall v, In v (node_ids g) -> piece (npiece v).
Hypothesis Hpb : forall a b, piece (bitG g ev nek a b).
Hypothesis Hin : forall v w, In v (node_ids g) -> In w (node_ids g) -> npiece v = npiece w -> nv v = nv w.
Hypothesis Hib : forall a b a' b', bitG g ev nek a b = bitG g ev nek a' b' ->
  option_map ev (find_arc g a b) = option_map ev (find_arc g a' b').
Hypothesis Hloop : forall v, find_arc g v v = None.

Lemma best_leafG lab p : fst (canon_searchG g nv ev nnk nek) = Some (lab, p) ->
  lab = labelG g nv ev nek p /\ In p (leaves_ofG g nv ev nnk) /\
  snd (canon_searchG g nv ev nnk nek) = filter (fun q => eqb lexlebN (labelG g nv ev nek q) lab) (leaves_ofG g nv ev nnk).
Proof.
  rewrite canon_searchG_fold. intros Eb.
  assert (HB : lab = labelG g nv ev nek p /\ In p (leaves_ofG g nv ev nnk)).
  { revert Eb. apply fold_visit_best. simpl. intros; discriminate. }
  destruct HB as [H1 H2]. split; auto. split; auto.
  apply (fold_min_leaves _ lexlebN lexlebN_total lexlebN_trans lexlebN_antisym _ _ _ _ Eb).
Qed.

Theorem same_label_autG p q : In p (leaves_ofG g nv ev nnk) -> In q (leaves_ofG g nv ev nnk) ->
  labelG g nv ev nek p = labelG g nv ev nek q ->
  exists pre r pre' r', p = pre ++ r /\ q = pre' ++ r' /\ length pre = length pre' /\ NoDup r /\ length r = length r' /\
    Permutation r' (node_ids g) /\ is_autG g nv ev (seqmap r r').
Proof.
  intros Hp Hq E.
  destruct (leafG_shape g nv ev nnk Hw p Hp) as (pre & r & -> & Hr & Ipre).
  destruct (leafG_shape g nv ev nnk Hw q Hq) as (pre' & r' & -> & Hr' & Ipre').
  assert (Hnd : NoDup r) by (eapply Permutation_NoDup; [apply Permutation_sym; exact Hr|apply Hw]).
  assert (Hnd' : NoDup r') by (eapply Permutation_NoDup; [apply Permutation_sym; exact Hr'|apply Hw]).
  assert (Hl : length r = length r') by (rewrite (Permutation_length Hr), (Permutation_length Hr'); auto).
  assert (Ip : incl (pre ++ r) (node_ids g)).
  { intros x Hx. apply in_app_or in Hx. destruct Hx as [Hx|Hx]; [apply Ipre; auto|apply (Permutation_in _ Hr Hx)]. }
  assert (Iq : incl (pre' ++ r') (node_ids g)).
  { intros x Hx. apply in_app_or in Hx. destruct Hx as [Hx|Hx]; [apply Ipre'; auto|apply (Permutation_in _ Hr' Hx)]. }
  rewrite !labelG_X in E.
  destruct (label_readX (node_ids g) npiece (bitG g ev nek) Hpn Hpb _ _ Ip Iq E) as (Hlen & Hkind & Harc).
  rewrite !app_length in Hlen. assert (Hlp : length pre = length pre') by lia.
  exists pre, r, pre', r'. split; [reflexivity|]. split; [reflexivity|]. split; [exact Hlp|]. split; [exact Hnd|]. split; [exact Hl|].
  split; [exact Hr'|]. apply seq_autG; auto.
  - intros i Hi. specialize (Hkind (length pre + i)). rewrite app_length in Hkind. specialize (Hkind ltac:(lia)).
    rewrite nth_app_r in Hkind. rewrite Hlp, nth_app_r in Hkind. apply Hin; auto.
    + apply (Permutation_in _ Hr). apply nth_In. auto.
    + apply (Permutation_in _ Hr'). apply nth_In. lia.
  - intros i j Hi Hj. destruct (Nat.eq_dec i j) as [->|Hij]; [rewrite !Hloop; reflexivity|].
    apply Hib. specialize (Harc (length pre + i) (length pre + j)). rewrite app_length in Harc.
    specialize (Harc ltac:(lia) ltac:(lia) ltac:(lia)).
    rewrite !nth_app_r in Harc. rewrite Hlp, !nth_app_r in Harc. exact Harc.
Qed.

(** clause 4, count, in full for the selection: the minimal leaves are exactly the images of the best permutation under the
    self-maps that preserve the selected attributes *)
Theorem autG_count_exact lab p : fst (canon_searchG g nv ev nnk nek) = Some (lab, p) ->
  NoDup (snd (canon_searchG g nv ev nnk nek)) /\
  forall q, In q (snd (canon_searchG g nv ev nnk nek)) <-> exists s, is_autG g nv ev s /\ q = map s p.
Proof.
  intros Hb. destruct (best_leafG lab p Hb) as (El & Hp & Ef).
  pose proof (init_partG_vpart g nv nnk (proj1 Hw)) as Hvp.
  assert (Hpm : In p (snd (canon_searchG g nv ev nnk nek))).
  { rewrite Ef. apply filter_In. split; auto. apply (eqb_eq lexlebN lexlebN_total lexlebN_antisym). auto. }
  split.
  - rewrite Ef. apply NoDup_filter. unfold leaves_ofG.
    apply (leaves_nodup _ lexleb IRInst.lexleb_total (fun a b c H1 H2 => IRInst.lexleb_trans a b c H1 H2)
             IRInst.lexleb_antisym (sigG g nv ev) _ (node_ids g) (proj1 Hw)). auto.
  - intros q. split.
    + intros Hqm. pose proof Hqm as Hq'. rewrite Ef in Hq'. apply filter_In in Hq'. destruct Hq' as [Hq Elq].
      apply (eqb_eq lexlebN lexlebN_total lexlebN_antisym) in Elq.
      assert (E : labelG g nv ev nek p = labelG g nv ev nek q) by congruence.
      destruct (same_label_autG p q Hp Hq E) as (pre & r & pre' & r' & -> & -> & Hlp & Hnd & Hl & Hr' & Haut).
      exists (seqmap r r'). split; auto.
      pose proof (min_leavesG_leaf g nv ev nnk nek _ (autG_count_lower g nv ev nnk nek Hw _ _ Haut Hpm)) as Hq2.
      rewrite map_app, (map_seqmap r r' Hnd Hl) in *.
      unfold leaves_ofG in Hq, Hq2.
      apply (leaves_tail_inj _ lexleb IRInst.lexleb_total (fun a b c H1 H2 => IRInst.lexleb_trans a b c H1 H2)
               IRInst.lexleb_antisym (sigG g nv ev) _ (node_ids g) (proj1 Hw) _ _ _ _ _ Hvp Hq Hq2).
      exists pre', (map (seqmap r r') pre), r'. repeat split; auto. apply (Permutation_length Hr').
    + intros (s & Hs & ->). apply autG_count_lower; auto.
Qed.
End ExactG.

(* ---------------- the bipartite selections satisfy the hypotheses ---------------- *)
Lemma join_nosep b sep (xs : list (list N)) : sep <> b -> Forall (nosep b) xs -> nosep b (join sep xs).
Proof.
  intros Hs. induction xs as [|x xs IH]; intros H; [intros []|]. inversion H; subst.
  destruct xs as [|x2 xs]; [simpl; auto|].
  change (join sep (x :: x2 :: xs)) with (x ++ sep :: join sep (x2 :: xs)).
  apply nosep_app; auto. intros [E|I]; [congruence|]. apply (IH H3). exact I.
Qed.
Lemma join_nonnil sep (xs : list (list N)) : (exists x, In x xs /\ x <> []) -> join sep xs <> [].
Proof.
  induction xs as [|x xs IH]; intros (y & Hy & Hne); [contradiction|].
  destruct xs as [|x2 xs].
  - simpl. destruct Hy as [<-|[]]. auto.
  - change (join sep (x :: x2 :: xs)) with (x ++ sep :: join sep (x2 :: xs)). destruct x; discriminate.
Qed.

Definition nocolon (x : list N) : Prop := nosep COLON x.
Lemma codes_nocolon (s : String.string) : forallb (fun c => negb (N.eqb c COLON)) (codes s) = true -> nocolon (codes s).
Proof. intros H I. rewrite forallb_forall in H. specialize (H _ I). rewrite N.eqb_refl in H. discriminate. Qed.
Lemma kind_str_nocolon k : nocolon (kind_str k).
Proof.
  unfold kind_str. destruct (Z.eqb k KREACTION); [apply codes_nocolon; reflexivity|].
  destruct (Z.eqb k KSPECIES); [apply codes_nocolon; reflexivity|intros []].
Qed.
Lemma role_str_nocolon r : nocolon (role_str r).
Proof.
  unfold role_str. destruct (Z.eqb r RPRODUCT); [apply codes_nocolon; reflexivity|].
  destruct (Z.eqb r RREACTANT); [apply codes_nocolon; reflexivity|intros []].
Qed.
Lemma st_str_nocolon s : nocolon (st_str s).
Proof.
  unfold st_str. destruct (Z.ltb s 0); [intros []|]. intros I. pose proof (dec_digits (Z.to_N s)) as H.
  rewrite Forall_forall in H. specialize (H _ I). unfold digitc, COLON in H. lia.
Qed.

Definition nolabel (nk : list nsel) : Prop := Forall (fun x => x <> NLabel) nk.
Lemma nolabel_in nk s : nolabel nk -> In s nk -> s <> NLabel.
Proof. unfold nolabel. rewrite Forall_forall. auto. Qed.

Lemma nval_str_props g t v s : s <> NLabel -> nosep BAR (snd (nval g t v s)) /\ nocolon (snd (nval g t v s)).
Proof.
  destruct s; simpl; intros Hs; try congruence.
  - split; [apply kind_str_nosep|apply kind_str_nocolon].
  - destruct (Z.eqb (kind_of g v) KSPECIES); simpl; split; intros [E|[]]; discriminate.
  - split; intros [].
Qed.
Lemma nval_by_str g t v w s : s <> NLabel ->
  (kind_of g v = KREACTION \/ kind_of g v = KSPECIES) -> (kind_of g w = KREACTION \/ kind_of g w = KSPECIES) ->
  snd (nval g t v s) = snd (nval g t w s) -> nval g t v s = nval g t w s.
Proof.
  destruct s; simpl; intros Hs Hv Hw E; try congruence.
  - rewrite (kind_str_inj _ _ Hv Hw E). reflexivity.
  - destruct (Z.eqb (kind_of g v) KSPECIES), (Z.eqb (kind_of g w) KSPECIES); simpl in *; congruence.
Qed.

Lemma eval_str_props a s : nosep BAR (snd (eval a s)) /\ nocolon (snd (eval a s)).
Proof.
  destruct s; simpl.
  - split; [apply role_str_nosep|apply role_str_nocolon].
  - split; [apply st_str_nosep|apply st_str_nocolon].
  - split; intros [].
Qed.
Lemma role_str_inj r r' : (r = -1 \/ r = 0 \/ r = 1)%Z -> (r' = -1 \/ r' = 0 \/ r' = 1)%Z -> role_str r = role_str r' -> r = r'.
Proof. intros [-> | [-> | ->]] [-> | [-> | ->]] E; auto; vm_compute in E; discriminate. Qed.
Lemma eval_by_str a b s : attr_ok a -> attr_ok b -> snd (eval a s) = snd (eval b s) -> eval a s = eval b s.
Proof.
  intros [Ha1 Ha2] [Hb1 Hb2]. destruct s; simpl; intros E; auto.
  - rewrite (role_str_inj _ _ Ha1 Hb1 E). reflexivity.
  - rewrite (st_str_inj _ _ Ha2 Hb2 E). reflexivity.
Qed.

Lemma map_by_str {A} (f f' : A -> Z * list N) (l : list A) :
  (forall s, In s l -> snd (f s) = snd (f' s) -> f s = f' s) -> map snd (map f l) = map snd (map f' l) -> map f l = map f' l.
Proof.
  induction l as [|x l IH]; simpl; intros H E; auto. inversion E. f_equal; auto.
Qed.

Lemma join_colon_inj (xs ys : list (list N)) : length xs = length ys -> Forall nocolon xs -> Forall nocolon ys ->
  join COLON xs = join COLON ys -> xs = ys.
Proof.
  intros Hl Hx Hy E. destruct xs as [|x xs], ys as [|y ys]; try discriminate; auto.
  apply (join_inj (sep := COLON)); auto; discriminate.
Qed.

(** The edge bit of a selection [ek] evaluated by [ef] (eval on the bipartite view, evalS on the species view): it is a
    piece, and it determines presence and selected attributes of the arc, as soon as the strings of [ef] are free of '|'
    and ':' and determine the values on the attributes that occur ([okA]). *)
Section EdgeBit.
Variables (g : vgraph) (E : Type) (ef : eattr -> E -> Z * list N) (ek : list E) (okA : eattr -> Prop).
Hypothesis ef_str : forall a s, nosep BAR (snd (ef a s)) /\ nocolon (snd (ef a s)).
Hypothesis ef_by_str : forall a b s, okA a -> okA b -> snd (ef a s) = snd (ef b s) -> ef a s = ef b s.
Hypothesis arcs_okA : forall u v x, find_arc g u v = Some x -> okA x.

Lemma bit_pieceG a b : piece (bitG g (fun x => map (ef x) ek) (length ek) a b).
Proof.
  unfold bitG. destruct (find_arc g a b) as [x|].
  - split; [|discriminate]. apply (nosep_app BAR [49%N; COLON]); [intros [H|[H|[]]]; discriminate|].
    apply join_nosep; [discriminate|]. apply Forall_forall. intros y Hy. rewrite map_map in Hy.
    apply in_map_iff in Hy. destruct Hy as (s & <- & _). apply ef_str.
  - split; [|discriminate]. apply (nosep_app BAR [48%N; COLON]); [intros [H|[H|[]]]; discriminate|].
    apply join_nosep; [discriminate|]. apply Forall_forall. intros y Hy. apply repeat_spec in Hy. subst. intros [].
Qed.
Lemma bit_injG a b a' b' :
  bitG g (fun x => map (ef x) ek) (length ek) a b = bitG g (fun x => map (ef x) ek) (length ek) a' b' ->
  option_map (fun x => map (ef x) ek) (find_arc g a b) = option_map (fun x => map (ef x) ek) (find_arc g a' b').
Proof.
  unfold bitG. destruct (find_arc g a b) as [x|] eqn:E1, (find_arc g a' b') as [y|] eqn:E2; simpl; intros H; try discriminate; auto.
  inversion H as [H']. f_equal.
  assert (Hc : forall z, Forall nocolon (map snd (map (ef z) ek))).
  { intros z. apply Forall_forall. intros u Hu. rewrite map_map in Hu. apply in_map_iff in Hu. destruct Hu as (s & <- & _). apply ef_str. }
  apply join_colon_inj in H'; auto; [|rewrite !map_length; reflexivity].
  apply map_by_str; auto. intros s _. apply ef_by_str; eapply arcs_okA; eauto.
Qed.
End EdgeBit.

Section BipInst.
Variables (g : vgraph) (t : ltab) (nk : list nsel) (ek : list esel).
Hypothesis Hw : wf g.
Hypothesis Hk : kinds_ok g.
Hypothesis Ha : arcs_ok g.
Hypothesis Hnl : nolabel nk.
Hypothesis Hne : In NKind nk \/ In NBip nk.

Lemma kind_of_dom v : In v (node_ids g) -> kind_of g v = KREACTION \/ kind_of g v = KSPECIES.
Proof. intros Hv. apply kind_of_l_dom; auto. Qed.

Lemma pieceA v : In v (node_ids g) -> piece (join COLON (map snd (nvA g t nk v))).
Proof.
  intros Hv. split.
  - apply join_nosep; [discriminate|]. apply Forall_forall. intros x Hx. unfold nvA in Hx. rewrite map_map in Hx.
    apply in_map_iff in Hx. destruct Hx as (s & <- & Hs). apply nval_str_props. apply (nolabel_in nk); auto.
  - apply join_nonnil. unfold nvA. rewrite map_map. destruct Hne as [H|H].
    + exists (snd (nval g t v NKind)). split; [apply in_map_iff; exists NKind; auto|]. simpl. apply kind_str_nonnil. apply kind_of_dom. auto.
    + exists (snd (nval g t v NBip)). split; [apply in_map_iff; exists NBip; auto|]. simpl.
      destruct (Z.eqb (kind_of g v) KSPECIES); discriminate.
Qed.

Lemma bit_pieceA a b : piece (bitG g (evA ek) (length ek) a b).
Proof. exact (bit_pieceG g _ eval ek eval_str_props a b). Qed.

Lemma npiece_injA v w : In v (node_ids g) -> In w (node_ids g) ->
  join COLON (map snd (nvA g t nk v)) = join COLON (map snd (nvA g t nk w)) -> nvA g t nk v = nvA g t nk w.
Proof.
  intros Hv Hw' E. unfold nvA in *.
  assert (Hc : forall u, Forall nocolon (map snd (map (nval g t u) nk))).
  { intros u. apply Forall_forall. intros x Hx. rewrite map_map in Hx. apply in_map_iff in Hx. destruct Hx as (s & <- & Hs).
    apply nval_str_props. apply (nolabel_in nk); auto. }
  apply join_colon_inj in E; auto; [|rewrite !map_length; reflexivity].
  apply map_by_str; auto. intros s Hs. apply nval_by_str; [apply (nolabel_in nk); auto| |]; apply kind_of_dom; auto.
Qed.

Lemma bit_injA a b a' b' : bitG g (evA ek) (length ek) a b = bitG g (evA ek) (length ek) a' b' ->
  option_map (evA ek) (find_arc g a b) = option_map (evA ek) (find_arc g a' b').
Proof. exact (bit_injG g _ eval ek attr_ok eval_str_props eval_by_str (fun u v x => find_arc_ok g u v x Ha) a b a' b'). Qed.

(** clause 4 (count) in full for a bipartite selection without 'label' that contains 'kind' or 'bipartite', on a loop-free view *)
Theorem attr_count_exact lab p : (forall v, find_arc g v v = None) ->
  fst (canon_searchA g t nk ek) = Some (lab, p) ->
  NoDup (snd (canon_searchA g t nk ek)) /\
  forall q, In q (snd (canon_searchA g t nk ek)) <-> exists s, is_autG g (nvA g t nk) (evA ek) s /\ q = map s p.
Proof.
  intros Hloop. rewrite canon_searchA_G.
  apply (autG_count_exact g (nvA g t nk) (evA ek) (length nk) (length ek) Hw pieceA bit_pieceA npiece_injA bit_injA Hloop).
Qed.
End BipInst.

(* ---------------- bipartite views without a view-id collision have no self-loops ---------------- *)
Lemma view_bip_loopfree st n : net_ok st n -> forall v, find_arc (view_bip st n) v v = None.
Proof.
  intros (Hnd & Hcl & Hk) v. rewrite (view_bip_closed st n Hnd Hcl Hk). unfold find_arc. simpl.
  destruct (find_arc_l (arcs_of st n) v v) as [a|] eqn:E; auto. exfalso.
  apply find_arc_l_some in E. unfold arcs_of in E. apply in_flat_map in E. destruct E as (r & Hr & He).
  unfold arcs_of_rxn in He. apply in_app_or in He.
  assert (Hdis : forall sc, In sc (lhs r ++ rhs r) -> fst sc <> rid r).
  { intros sc Hsc E'. apply (NoDup_app_disj _ _ (rid r) Hnd); [rewrite <- E'; apply (Hcl r Hr sc Hsc)|apply in_map; auto]. }
  destruct He as [He|He]; apply in_map_iff in He; destruct He as (sc & E' & Hsc); inversion E'; subst.
  - apply (Hdis sc); [apply in_or_app; auto|congruence].
  - apply (Hdis sc); [apply in_or_app; auto|congruence].
Qed.

(** clause 4 (count) in full for the bipartite view of a collision-free network under such a selection *)
Theorem net_attr_count_exact st n t nk ek lab p : net_ok st n -> coeffs_ok n -> nolabel nk -> (In NKind nk \/ In NBip nk) ->
  fst (canon_searchA (view true st n) t nk ek) = Some (lab, p) ->
  NoDup (snd (canon_searchA (view true st n) t nk ek)) /\
  forall q, In q (snd (canon_searchA (view true st n) t nk ek)) <->
            exists s, is_autG (view true st n) (nvA (view true st n) t nk) (evA ek) s /\ q = map s p.
Proof.
  intros Hn Hc Hnl Hne. destruct (view_bip_GI st n Hc) as (Hw & Hk & Ha). simpl.
  apply attr_count_exact; auto. apply view_bip_loopfree. exact Hn.
Qed.

(* ---------------- the selected-attribute self-maps form a group; orbits of the canonicaliser under a selection ---------------- *)
Lemma autG_id g nv ev : is_autG g nv ev (fun v => v).
Proof. apply is_autG_pres, pres_id. Qed.
Lemma autG_comp g nv ev s t : is_autG g nv ev s -> is_autG g nv ev t -> is_autG g nv ev (fun v => t (s v)).
Proof. rewrite !is_autG_pres. apply pres_comp. Qed.
Lemma autG_inv g nv ev s : wf g -> is_autG g nv ev s -> exists t, is_autG g nv ev t /\ forall v, In v (node_ids g) -> t (s v) = v.
Proof. intros Hw. setoid_rewrite is_autG_pres. apply pres_inv, Hw. Qed.

Section OrbitsG.
Variables (g : vgraph) (nv : N -> list (Z * list N)) (ev : eattr -> list (Z * list N)) (nnk nek : nat) (lab p : list N).
Hypothesis Hw : wf g.
Hypothesis Hb : fst (canon_searchG g nv ev nnk nek) = Some (lab, p).
(** what autG_count_exact provides *)
Hypothesis Miff : forall q, In q (snd (canon_searchG g nv ev nnk nek)) <-> exists s, is_autG g nv ev s /\ q = map s p.

Lemma min_leavesG_head : exists rest, snd (canon_searchG g nv ev nnk nek) = p :: rest.
Proof. revert Hb. rewrite canon_searchG_fold. apply visit_best_first. Qed.

Lemma bestG_nodes : (forall v, In v p -> In v (node_ids g)) /\ (forall v, In v (node_ids g) -> In v p).
Proof.
  assert (Hleaf : In p (leaves_ofG g nv ev nnk)).
  { apply (min_leavesG_leaf g nv ev nnk nek). apply Miff. exists (fun v => v). split; [apply autG_id|]. rewrite map_id. reflexivity. }
  destruct (leafG_shape g nv ev nnk Hw p Hleaf) as (pre & r & Ep & Hr & Ipre). split.
  - intros v Hv. rewrite Ep in Hv. apply in_app_or in Hv. destruct Hv; [apply Ipre; auto|apply (Permutation_in _ Hr); auto].
  - intros v Hv. rewrite Ep. apply in_or_app. right. apply (Permutation_in _ (Permutation_sym Hr)); auto.
Qed.

Theorem orbitsG_exact u v : In u (node_ids g) ->
  ((exists c, In c (orbits_from_perms (snd (canon_searchG g nv ev nnk nek))) /\ In u c /\ In v c) <-> (exists s, is_autG g nv ev s /\ s u = v)).
Proof.
  destruct min_leavesG_head as (rest & Eml). destruct bestG_nodes as [Ip Inp]. revert Miff. rewrite Eml. intros Miff'.
  exact (group_orbits_exact (node_ids g) (is_autG g nv ev) p rest (autG_id g nv ev) (autG_comp g nv ev)
           (fun s => autG_inv g nv ev s Hw) (fun s v Hs => proj1 (proj2 Hs) v) (fun v => conj (Ip v) (Inp v)) Miff' u v).
Qed.
End OrbitsG.

(** clause 4 (orbits) in full for a bipartite selection (no 'label'; 'kind' or 'bipartite' selected) on a loop-free view *)
Theorem attr_orbits_exact g t nk ek lab p : wf g -> kinds_ok g -> arcs_ok g -> nolabel nk -> (In NKind nk \/ In NBip nk) ->
  (forall v, find_arc g v v = None) -> fst (canon_searchA g t nk ek) = Some (lab, p) ->
  forall u v, In u (node_ids g) ->
    ((exists c, In c (orbits_from_perms (snd (canon_searchA g t nk ek))) /\ In u c /\ In v c) <->
     (exists s, is_autG g (nvA g t nk) (evA ek) s /\ s u = v)).
Proof.
  intros Hw Hk Ha Hnl Hne Hloop Hb.
  destruct (attr_count_exact g t nk ek Hw Hk Ha Hnl Hne lab p Hloop Hb) as [_ Miff].
  rewrite canon_searchA_G in *. apply (orbitsG_exact g (nvA g t nk) (evA ek) (length nk) (length ek) lab p Hw Hb Miff).
Qed.

(* ---------------- clause 2 in full: the canonical graphs agree on the selected attributes ---------------- *)
(** the canonical graph read on the selected attributes: canonical id with the selected node attributes; canonical arc with the
    selected edge attributes *)
Definition canon_nodesG (g : vgraph) (nv : N -> list (Z * list N)) (p : list N) : list (N * list (Z * list N)) :=
  map (fun v => (cid p v, nv v)) (node_ids g).
Definition canon_arcsG (g : vgraph) (ev : eattr -> list (Z * list N)) (p : list N) : list (N * N * list (Z * list N)) :=
  map (fun e => (cid p (asrc e), cid p (adst e), ev (aattr e))) (varcs g).

Lemma arcs_by_source g : wf g -> Permutation (varcs g) (flat_map (fun u => flat_map (arc_out g u) (node_ids g)) (node_ids g)).
Proof.
  intros Hw. pose proof Hw as (Hn & Hak & Hends).
  apply perm_trans with (flat_map (fun u => filter (fun e => N.eqb (asrc e) u) (varcs g)) (node_ids g)).
  - apply NoDup_Permutation.
    + apply (NoDup_map_inv akey). exact Hak.
    + apply NoDup_flat_map_disj; auto.
      * intros a _. apply NoDup_filter. apply (NoDup_map_inv akey). exact Hak.
      * intros a b x _ _ Hne Ha Hb. apply filter_In in Ha, Hb. destruct Ha as [_ Ea], Hb as [_ Eb]. apply N.eqb_eq in Ea, Eb. congruence.
    + intros e. rewrite in_flat_map. split.
      * intros He. exists (asrc e). split; [apply (Hends e He)|]. apply filter_In. split; auto. apply N.eqb_refl.
      * intros (u & _ & Hu). apply filter_In in Hu. tauto.
  - apply flat_map_perm_pointwise. intros u _. apply out_arcs_perm. exact Hw.
Qed.

Section LeafClass.
Variables (g : vgraph) (nv : N -> list (Z * list N)) (ev : eattr -> list (Z * list N)) (s : N -> N).
Hypothesis Hw : wf g.
Hypothesis Hs : is_autG g nv ev s.
Let S := extG g s.
Let S_inj : forall x y, S x = S y -> x = y := extG_inj g nv ev s Hs.

Lemma map_S p : incl p (node_ids g) -> map s p = map S p.
Proof. intros Hp. apply map_ext_in. intros v Hv. symmetry. apply extG_on. apply Hp. exact Hv. Qed.
Lemma S_nodes : Permutation (map S (node_ids g)) (node_ids g).
Proof. rewrite <- (map_S (node_ids g)) by (intros x Hx; exact Hx). apply (nodes_perm_s g nv ev s Hw Hs). Qed.

Lemma canon_nodes_aut p : incl p (node_ids g) -> Permutation (canon_nodesG g nv (map s p)) (canon_nodesG g nv p).
Proof.
  intros Hp. rewrite (map_S p Hp). unfold canon_nodesG.
  eapply perm_trans; [apply Permutation_map; apply Permutation_sym; exact S_nodes|].
  rewrite map_map. rewrite (map_ext_in _ (fun v => (cid p v, nv v))); [apply Permutation_refl|].
  intros u Hu. rewrite (cid_map S S_inj). f_equal. unfold S. rewrite extG_on by auto. apply Hs. exact Hu.
Qed.

Lemma canon_arcs_aut p : incl p (node_ids g) -> Permutation (canon_arcsG g ev (map s p)) (canon_arcsG g ev p).
Proof.
  intros Hp. rewrite (map_S p Hp). unfold canon_arcsG.
  set (F := fun (q : list N) (e : arc) => (cid q (asrc e), cid q (adst e), ev (aattr e))).
  change (Permutation (map (F (map S p)) (varcs g)) (map (F p) (varcs g))).
  eapply perm_trans; [apply Permutation_map; apply arcs_by_source; exact Hw|].
  eapply perm_trans; [|apply Permutation_sym; apply Permutation_map; apply arcs_by_source; exact Hw].
  rewrite !map_flat_map.
  eapply perm_trans; [apply perm_flat_map; apply Permutation_sym; exact S_nodes|]. rewrite flat_map_map.
  apply flat_map_perm_pointwise. intros u Hu. rewrite !map_flat_map.
  eapply perm_trans; [apply perm_flat_map; apply Permutation_sym; exact S_nodes|]. rewrite flat_map_map.
  rewrite (flat_map_ext_in' _ (fun v => map (F p) (arc_out g u v))); [apply Permutation_refl|].
  intros v Hv. unfold arc_out. pose proof (ev_ext g nv ev s Hw Hs u v) as He. fold S in He.
  destruct (find_arc g (S u) (S v)) as [x|], (find_arc g u v) as [y|]; simpl in *; try discriminate; auto.
  unfold F, asrc, adst, aattr. simpl. rewrite !(cid_map S S_inj). inversion He. reflexivity.
Qed.
End LeafClass.

Section InvariantFull.
Variable f : N -> N.
Hypothesis f_inj : forall x y, f x = f y -> x = y.
Variables (g g' : vgraph) (nv nv' : N -> list (Z * list N)) (ev : eattr -> list (Z * list N)) (nnk nek : nat).
Hypothesis Hw : wf g.
Hypothesis Hg : geq g' (relabel f g).
Hypothesis Hnv : forall v, nv' (f v) = nv v.
(* the hypotheses under which the label of g can be read back *)
Hypothesis Hpn : forall v, In v (node_ids g) -> piece (join COLON (map snd (nv v))).
Hypothesis Hpb : forall a b, piece (bitG g ev nek a b).
Hypothesis Hin : forall v w, In v (node_ids g) -> In w (node_ids g) ->
  join COLON (map snd (nv v)) = join COLON (map snd (nv w)) -> nv v = nv w.
Hypothesis Hib : forall a b a' b', bitG g ev nek a b = bitG g ev nek a' b' ->
  option_map ev (find_arc g a b) = option_map ev (find_arc g a' b').
Hypothesis Hloop : forall v, find_arc g v v = None.

Theorem invariantG_full lab p lab' p' :
  fst (canon_searchG g nv ev nnk nek) = Some (lab, p) -> fst (canon_searchG g' nv' ev nnk nek) = Some (lab', p') ->
  lab' = lab /\ Permutation (canon_nodesG g' nv' p') (canon_nodesG g nv p) /\ Permutation (canon_arcsG g' ev p') (canon_arcsG g ev p).
Proof.
  intros Hb Hb'.
  destruct (renameG_rel f f_inj g g' nv nv' ev nnk nek Hw Hg Hnv) as [Hlab Hml].
  split; [unfold best_label in Hlab; rewrite Hb, Hb' in Hlab; simpl in Hlab; congruence|].
  assert (Hw' : wf g') by (apply (geq_wf (relabel f g)); [apply geq_sym; exact Hg|apply wf_relabel; auto; intros x y _ _; apply f_inj]).
  (* p' is the image of a minimal leaf q of g, and q is the image of p under a selected-attribute self-map *)
  assert (Hp' : In p' (snd (canon_searchG g' nv' ev nnk nek))).
  { destruct (min_leavesG_head g' nv' ev nnk nek lab' p' Hb') as (rest & ->). left. reflexivity. }
  apply (Permutation_in _ (Permutation_sym Hml)) in Hp'. apply in_map_iff in Hp'. destruct Hp' as (q & <- & Hq).
  destruct (autG_count_exact g nv ev nnk nek Hw Hpn Hpb Hin Hib Hloop lab p Hb) as [_ Miff].
  pose proof (proj1 (bestG_nodes g nv ev nnk nek p Hw Miff)) as Hpin.
  apply Miff in Hq. destruct Hq as (s & Hs & ->).
  assert (Hnodes : Permutation (node_ids g') (map f (node_ids g))).
  { rewrite <- node_ids_relabel. apply geq_node_ids. exact Hg. }
  split.
  - eapply perm_trans; [|apply (canon_nodes_aut g nv ev s Hw Hs p Hpin)].
    unfold canon_nodesG. eapply perm_trans; [apply Permutation_map; exact Hnodes|]. rewrite map_map.
    rewrite (map_ext _ (fun v => (cid (map s p) v, nv v))); [apply Permutation_refl|].
    intros v. rewrite (cid_map f f_inj), Hnv. reflexivity.
  - eapply perm_trans; [|apply (canon_arcs_aut g nv ev s Hw Hs p Hpin)].
    unfold canon_arcsG. eapply perm_trans; [apply Permutation_map; apply Hg|]. unfold relabel. simpl. rewrite map_map.
    rewrite (map_ext _ (fun e => (cid (map s p) (asrc e), cid (map s p) (adst e), ev (aattr e)))); [apply Permutation_refl|].
    intros e. unfold asrc, adst, aattr. simpl. rewrite !(cid_map f f_inj). reflexivity.
Qed.
End InvariantFull.

(** clause 2 in full for a bipartite selection (no 'label'; 'kind' or 'bipartite' selected) on a loop-free view: the renamed,
    re-presented view gets the same minimal label and the same canonical graph on the selected attributes *)
Theorem attr_invariant_full f (f_inj : forall x y, f x = f y -> x = y) g g' t nk ek lab p lab' p' :
  wf g -> kinds_ok g -> arcs_ok g -> nolabel nk -> (In NKind nk \/ In NBip nk) -> (forall v, find_arc g v v = None) ->
  geq g' (relabel f g) ->
  fst (canon_searchA g t nk ek) = Some (lab, p) -> fst (canon_searchA g' (relab_tab f t) nk ek) = Some (lab', p') ->
  lab' = lab /\
  Permutation (canon_nodesG g' (nvA g' (relab_tab f t) nk) p') (canon_nodesG g (nvA g t nk) p) /\
  Permutation (canon_arcsG g' (evA ek) p') (canon_arcsG g (evA ek) p).
Proof.
  intros Hw Hk Ha Hnl Hne Hloop Hg. rewrite !canon_searchA_G.
  apply (invariantG_full f f_inj g g' (nvA g t nk) (nvA g' (relab_tab f t) nk) (evA ek) (length nk) (length ek) Hw Hg); auto.
  - exact (fun v => nvA_relab f f_inj g g' t nk v Hw Hg).
  - apply pieceA; auto.
  - apply bit_pieceA.
  - apply npiece_injA; auto.
  - apply bit_injA; auto.
Qed.

(* ---------------- the species-view selections (aggregates), on loop-free species views ---------------- *)
Definition arcsS_ok (g : vgraph) : Prop := forall e, In e (varcs g) -> (-1 <= fst (aattr e))%Z /\ (-1 <= snd (aattr e))%Z.
Lemma evalS_str_props a s : nosep BAR (snd (evalS a s)) /\ nocolon (snd (evalS a s)).
Proof.
  destruct s; simpl.
  - split; [apply st_str_nosep|apply st_str_nocolon].
  - split; [apply st_str_nosep|apply st_str_nocolon].
  - split; intros [].
Qed.
Lemma evalS_by_str a b s : (-1 <= fst a)%Z /\ (-1 <= snd a)%Z -> (-1 <= fst b)%Z /\ (-1 <= snd b)%Z ->
  snd (evalS a s) = snd (evalS b s) -> evalS a s = evalS b s.
Proof.
  intros [Ha1 Ha2] [Hb1 Hb2]. destruct s; simpl; intros E; auto.
  - rewrite (st_str_inj _ _ Ha1 Hb1 E). reflexivity.
  - rewrite (st_str_inj _ _ Ha2 Hb2 E). reflexivity.
Qed.

Section SpInst.
Variables (g : vgraph) (t : ltab) (nk : list nsel) (ek : list sesel).
Hypothesis Hw : wf g.
Hypothesis Hk : kinds_ok g.
Hypothesis Ha : arcsS_ok g.
Hypothesis Hnl : nolabel nk.
Hypothesis Hne : In NKind nk \/ In NBip nk.

Lemma bit_pieceS a b : piece (bitG g (evS ek) (length ek) a b).
Proof. exact (bit_pieceG g _ evalS ek evalS_str_props a b). Qed.
Lemma find_arcS_ok u v x : find_arc g u v = Some x -> (-1 <= fst x)%Z /\ (-1 <= snd x)%Z.
Proof. intros E. unfold find_arc in E. apply find_arc_l_some in E. apply (Ha _ E). Qed.
Lemma bit_injS a b a' b' : bitG g (evS ek) (length ek) a b = bitG g (evS ek) (length ek) a' b' ->
  option_map (evS ek) (find_arc g a b) = option_map (evS ek) (find_arc g a' b').
Proof. exact (bit_injG g _ evalS ek _ evalS_str_props evalS_by_str find_arcS_ok a b a' b'). Qed.

(** clause 4 (count) in full for a species-view selection on a loop-free species view *)
Theorem spattr_count_exact lab p : (forall v, find_arc g v v = None) ->
  fst (canon_searchS g t nk ek) = Some (lab, p) ->
  NoDup (snd (canon_searchS g t nk ek)) /\
  forall q, In q (snd (canon_searchS g t nk ek)) <-> exists s, is_autG g (nvA g t nk) (evS ek) s /\ q = map s p.
Proof.
  intros Hloop. unfold canon_searchS.
  apply (autG_count_exact g (nvA g t nk) (evS ek) (length nk) (length ek) Hw (pieceA g t nk Hk Hnl Hne) bit_pieceS
           (npiece_injA g t nk Hk Hnl) bit_injS Hloop).
Qed.
End SpInst.

(** label_read for labelA: the label of a bipartite selection (no 'label'; 'kind' or 'bipartite' selected) determines, position by
    position, the selected node attributes and -- for distinct positions -- presence and selected attributes of the arcs *)
Theorem labelA_read g t nk ek p q : wf g -> kinds_ok g -> arcs_ok g -> nolabel nk -> (In NKind nk \/ In NBip nk) ->
  incl p (node_ids g) -> incl q (node_ids g) -> labelA g t nk ek p = labelA g t nk ek q ->
  length p = length q /\
  (forall i, i < length p -> nvA g t nk (nth i p 0%N) = nvA g t nk (nth i q 0%N)) /\
  (forall i j, i < length p -> j < length p -> i <> j ->
     option_map (evA ek) (find_arc g (nth i p 0%N) (nth j p 0%N)) = option_map (evA ek) (find_arc g (nth i q 0%N) (nth j q 0%N))).
Proof.
  intros Hw Hk Ha Hnl Hne Hp Hq E. rewrite !labelA_G, !labelG_X in E.
  destruct (label_readX (node_ids g) _ _ (pieceA g t nk Hk Hnl Hne) (bit_pieceA g ek) p q Hp Hq E) as (Hl & Hn & Hb).
  split; [exact Hl|]. split.
  - intros i Hi. apply (npiece_injA g t nk Hk Hnl); [apply Hp; apply nth_In; auto|apply Hq; apply nth_In; lia|apply Hn; auto].
  - intros i j Hi Hj Hij. apply (bit_injA g ek Ha). apply Hb; auto.
Qed.

(** clause 2 in full for a species-view selection on a loop-free species view *)
Theorem spattr_invariant_full f (f_inj : forall x y, f x = f y -> x = y) g g' t nk ek lab p lab' p' :
  wf g -> kinds_ok g -> arcsS_ok g -> nolabel nk -> (In NKind nk \/ In NBip nk) -> (forall v, find_arc g v v = None) ->
  geq g' (relabel f g) ->
  fst (canon_searchS g t nk ek) = Some (lab, p) -> fst (canon_searchS g' (relab_tab f t) nk ek) = Some (lab', p') ->
  lab' = lab /\
  Permutation (canon_nodesG g' (nvA g' (relab_tab f t) nk) p') (canon_nodesG g (nvA g t nk) p) /\
  Permutation (canon_arcsG g' (evS ek) p') (canon_arcsG g (evS ek) p).
Proof.
  intros Hw Hk Ha Hnl Hne Hloop Hg. unfold canon_searchS.
  apply (invariantG_full f f_inj g g' (nvA g t nk) (nvA g' (relab_tab f t) nk) (evS ek) (length nk) (length ek) Hw Hg); auto.
  - exact (fun v => nvA_relab f f_inj g g' t nk v Hw Hg).
  - apply pieceA; auto.
  - apply bit_pieceS.
  - apply npiece_injA; auto.
  - apply bit_injS; auto.
Qed.
