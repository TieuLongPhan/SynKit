(** C01 — no hydrogen is lost or created by its_to_rsmi . rsmi_to_its: the hydrogen balance carried through the string
    round trip (theorems 27 / 32 + 44) *)
From Coq Require Import List NArith ZArith Bool Lia Arith Permutation String.
From SK Require Import lib.LGraph lib.C01_GraphLemmas model.C01_Model model.C02_Model model.C01_String model.C01_Rsmi model.C01_HBal model.C01_Prem
  proof.C01_Proof proof.C01_StringProof proof.C01_StringHyd proof.C01_StringPipe proof.C01_StringPipeH proof.C01_RsmiProof proof.C01_HBalProof proof.C01_PremProof.
Import ListNotations.
Local Open Scope Z_scope.

Lemma sumZ_perm {X} (f : X -> Z) l1 l2 : Permutation l1 l2 -> sumZ f l1 = sumZ f l2.
Proof. induction 1; rewrite ?sumZ_cons; try lia; try reflexivity. Qed.

(** the hydrogen total depends only on the labels the property talks about *)
Lemma h_total_geq_sel (g g' : mgraph) : wf g -> wf g' -> geq_sel g' g -> h_total g' = h_total g.
Proof.
  intros W W' E. unfold h_total.
  rewrite (sumZ_perm (h_weight g') (node_ids g') (node_ids g)).
  - apply sumZ_ext_in. intros n _. unfold h_weight. pose proof (proj1 E n) as L.
    destruct (label g' n) as [a|], (label g n) as [b|]; cbn in L; try discriminate; [|reflexivity].
    inversion L as [[E1 E2 E3 E4]]. unfold is_H. rewrite E1, E3. reflexivity.
  - apply NoDup_Permutation; [apply W'|apply W|]. intros n. split; apply geq_sel_node_ids; [exact E|apply geq_sel_sym; exact E].
Qed.

Section Str.
Variable rd_read : bool -> string -> option rmol.
Variable rd_write : bool -> wmol -> option string.
Variable ok : mgraph -> Prop.

(** C01_string_hydrogen_balance: under the premises of theorem 32, each side of its_to_rsmi(rsmi_to_its(s)) reads back as a
    graph with the hydrogen total of the corresponding input side *)
Theorem string_hydrogen_balance :
  (forall w s, rd_write true w = Some s -> has_gt s = false) ->
  R2 string (rd_read true) (rd_write true) ok ->
  forall s r p mr mp, rsmi_parts s = Some (r, p) -> rd_read true r = Some mr -> rd_read true p = Some mp -> rmol_ok mr -> rmol_ok mp ->
  let G := graph_of mr in let H := graph_of mp in
  wf G -> wf H -> same_nodes G H -> orders_pos G -> orders_pos H -> one_parent G -> one_parent H ->
  forall J s', rsmi_to_its_str rd_read default_ropts s = Ok J -> its_to_rsmi_str rd_write true false false J = Ok s' ->
  exists r' p' mr' mp', rsmi_parts s' = Some (r', p') /\ rd_read true r' = Some mr' /\ rd_read true p' = Some mp' /\
    h_total (graph_of mr') = h_total G /\ h_total (graph_of mp') = h_total H.
Proof.
  intros W0 HR s r p mr mp Ps Rr Rp Okr Okp G H WG WH S PG PH OG OH J s' E1 E2.
  destruct (rsmi_string_roundtrip rd_read rd_write ok W0 HR s r p mr mp Ps Rr Rp Okr Okp WG WH S PG PH J s' E1 E2)
    as (EJ & r' & p' & Ps' & mr' & mp' & Rr' & Rp' & Okr' & Okp' & Gr & Gp).
  exists r', p', mr', mp'. split; [exact Ps'|]. split; [exact Rr'|]. split; [exact Rp'|].
  pose proof (smi_graph_wf G (hlist J) WG) as W1. pose proof (smi_graph_wf H (hlist J) WH) as W2.
  split.
  - rewrite <- (smi_graph_balance G (hlist J) WG OG). apply h_total_geq_sel; [exact W1|apply (graph_of_wf_geq mr' _ Okr' W1 Gr)|exact Gr].
  - rewrite <- (smi_graph_balance H (hlist J) WH OH). apply h_total_geq_sel; [exact W2|apply (graph_of_wf_geq mp' _ Okp' W2 Gp)|exact Gp].
Qed.
End Str.

(** non-vacuity: the extra hypotheses hold for the reactions of the earlier examples (with and without explicit hydrogens) *)
Example C01_string_hydrogen_balance_nonvacuous :
  one_parent (graph_of ex_mr) /\ one_parent (graph_of ex_mp) /\ h_total (graph_of ex_mr) = 4 /\ h_total (graph_of ex_mp) = 4 /\
  one_parent (graph_of C01_RenumWrite.ex_hr) /\ one_parent (graph_of C01_RenumWrite.ex_hp) /\
  h_total (graph_of C01_RenumWrite.ex_hr) = 6 /\ h_total (graph_of C01_RenumWrite.ex_hp) = 6 /\
  h_total (smi_graph (graph_of C01_RenumWrite.ex_hp) [3; 4]) = 6.
Proof. repeat split; try reflexivity; apply one_parentb_spec; reflexivity. Qed.
