(** C19 — proofs about model/C19_Api.v: the public API of DeficiencyAnalyzer as a state machine over arbitrary call
    sequences (with arbitrary edits of the network between the calls), and the logic part of nondegeneracy_test.
    stdlib lists. *)
From Coq Require Import List NArith ZArith Bool Arith Lia.
Require SK.proof.C19_Rank SK.proof.C17_Nodes.
From SK Require Import lib.Tok lib.Reach model.C17_Model model.C19_Model model.C19_Api
                       proof.C17_Proof proof.C19_Proof proof.C19_Complexes.
Import ListNotations.
Local Open Scope nat_scope.

Definition is_error (r : res) : bool := match r with ROk | RBool _ => false | _ => true end.

(** the object after a complete analysis of x by a new analyzer *)
Definition full (o : opts) (x : hist_step) : ast :=
  let sn := snap_of o x in ASt (Some sn) (Some (stored_ld sn)) (Some (stored_one sn (stored_ld sn))) None.

Lemma op_summary_ok o x st : hs_net x <> [] -> op_summary o x st = (ASt (Some (snap_of o x)) None None None, ROk).
Proof. unfold op_summary. destruct (hs_net x); [congruence|reflexivity]. Qed.

Lemma op_linkage_some st sn : s_sum st = Some sn ->
  op_linkage st = (ASt (Some sn) (Some (stored_ld sn)) (s_one st) (s_nd st), ROk).
Proof. unfold op_linkage. intros ->. reflexivity. Qed.

Lemma op_one_some o x st sn : s_sum st = Some sn ->
  op_one o x st = (let ld := match s_ld st with Some ld => ld | None => stored_ld sn end in
                   (ASt (Some sn) (Some ld) (Some (stored_one sn ld)) (s_nd st), ROk)).
Proof. destruct st as [s [ld|] d n]; simpl; intros ->; reflexivity. Qed.

Lemma op_one_none o x st : s_sum st = None ->
  op_one o x st = match hs_net x with [] => (st, RValueError) | _ => (full o x, ROk) end.
Proof. unfold op_one, op_summary. intros ->. destruct (hs_net x); reflexivity. Qed.

Lemma op_crn_cases o x f mis st :
  op_crn o x f mis st = match hs_net x with
                        | [] => (st, RValueError)
                        | _ => if f then op_nondeg o x mis (full o x) else (full o x, ROk)
                        end.
Proof. unfold op_crn, op_summary. destruct (hs_net x); reflexivity. Qed.

Lemma op_crn_ok o x f mis st : hs_net x <> [] ->
  op_crn o x f mis st = if f then op_nondeg o x mis (full o x) else (full o x, ROk).
Proof. intros NE. rewrite op_crn_cases. destruct (hs_net x); [congruence|reflexivity]. Qed.

(** nondegeneracy_test either raises and leaves the object as it was, or stores the record computed from the STORED complexes *)
Lemma op_nondeg_cases o x mis st :
  (fst (op_nondeg o x mis st) = st /\ is_error (snd (op_nondeg o x mis st)) = true) \/
  (exists sn d, s_sum st = Some sn /\
     nondeg (length (species_order (hs_net x) (hs_iso x))) (rc_r (hs_rc x)) (sn_cs sn) mis = Some d /\
     op_nondeg o x mis st = (ASt (s_sum st) (s_ld st) (s_one st) (Some d), ROk)).
Proof.
  unfold op_nondeg. set (m := length (species_order (hs_net x) (hs_iso x))).
  destruct (negb (o_stoich o)); [left; split; reflexivity|].
  destruct (s_sum st) as [sn|]; [|left; split; reflexivity].
  destruct (hs_net x); [left; split; reflexivity|].
  destruct (nondeg m _ (sn_cs sn) mis) as [d|] eqn:D; [|left; split; reflexivity].
  right. exists sn, d. repeat split. exact D.
Qed.

Lemma op_nondeg_error o x mis st : is_error (snd (op_nondeg o x mis st)) = true -> fst (op_nondeg o x mis st) = st.
Proof. destruct (op_nondeg_cases o x mis st) as [[E _]|(sn & d & _ & _ & ->)]; [intros _; exact E|discriminate]. Qed.

Lemma nondeg_keeps_sum o x mis st : s_sum (fst (op_nondeg o x mis st)) = s_sum st.
Proof. destruct (op_nondeg_cases o x mis st) as [[-> _]|(sn & d & _ & _ & ->)]; reflexivity. Qed.

(* ------------------------------------------------------------------ coherence: the stored fields describe ONE network *)

(** every stored field is the value computed from the network the object saw at its last successful compute_summary
    ([sn_x]): the summary group is [snap_of] of it, the class deficiencies (if stored) are its class deficiencies, the
    deficiency-one result (if stored) is computed from exactly these two, the nondegeneracy result (if stored) used its
    complexes; without a summary nothing is stored. *)
Definition coherent (o : opts) (st : ast) : Prop :=
  match s_sum st with
  | None => s_ld st = None /\ s_one st = None /\ s_nd st = None
  | Some sn =>
      hs_net (sn_x sn) <> [] /\ sn = snap_of o (sn_x sn) /\
      (s_ld st = None \/ s_ld st = Some (stored_ld sn)) /\
      (s_one st = None \/ (s_ld st = Some (stored_ld sn) /\ s_one st = Some (stored_one sn (stored_ld sn)))) /\
      (forall d, s_nd st = Some d -> nd_max d = max_complex_size (sn_cs sn))
  end.

Lemma coherent_init o : coherent o ast_init.
Proof. repeat split. Qed.

Lemma coherent_full o x : hs_net x <> [] -> coherent o (full o x).
Proof. intros NE. unfold coherent. simpl. repeat split; auto. discriminate. Qed.

Lemma coherent_summary o x st : coherent o st -> coherent o (fst (op_summary o x st)).
Proof.
  intros H. unfold op_summary. destruct (hs_net x) as [|e net] eqn:E; [exact H|].
  unfold coherent. simpl. rewrite E. repeat split; auto; discriminate.
Qed.

Lemma coherent_linkage o st : coherent o st -> coherent o (fst (op_linkage st)).
Proof.
  intros H. destruct (s_sum st) as [sn|] eqn:E; [|unfold op_linkage; rewrite E; exact H].
  rewrite (op_linkage_some st sn E). unfold coherent in *. simpl. rewrite E in H. destruct H as (NE & Hs & Hl & Ho & Hn).
  repeat split; auto. destruct Ho as [Ho|[_ Ho]]; auto.
Qed.

Lemma coherent_one o x st : coherent o st -> coherent o (fst (op_one o x st)).
Proof.
  intros H. destruct (s_sum st) as [sn|] eqn:E.
  - rewrite (op_one_some o x st sn E). unfold coherent in *. simpl. rewrite E in H. destruct H as (NE & Hs & Hl & Ho & Hn).
    assert (match s_ld st with Some ld => ld | None => stored_ld sn end = stored_ld sn) as ->
      by (destruct Hl as [->| ->]; reflexivity).
    repeat split; auto.
  - rewrite (op_one_none o x st E). destruct (hs_net x) eqn:En; [exact H|]. apply coherent_full. rewrite En. discriminate.
Qed.

Lemma nondeg_max m r cs mis d : nondeg m r cs mis = Some d ->
  nd_max d = max_complex_size cs /\ nd_nullity d = (m - r)%nat /\ map fst (nd_per d) = firstn (length (nd_per d)) mis.
Proof.
  unfold nondeg. destruct (all_some (map (nd_scan cs (max_complex_size cs)) mis)) as [fl|]; [|discriminate].
  intros E. inversion E; subst; clear E. simpl. split; [reflexivity|]. split; [reflexivity|].
  clear. revert fl. induction mis as [|i mis IH]; intros [|b fl]; simpl; try reflexivity. f_equal. apply IH.
Qed.

Lemma coherent_nondeg o x mis st : coherent o st -> coherent o (fst (op_nondeg o x mis st)).
Proof.
  intros H. destruct (op_nondeg_cases o x mis st) as [[-> _]|(sn & d & E & D & ->)]; [exact H|].
  unfold coherent in *. simpl. rewrite E in *. destruct H as (NE & Hs & Hl & Ho & _).
  repeat (split; [assumption|]). intros d' [= <-]. apply (nondeg_max _ _ _ _ _ D).
Qed.

Lemma coherent_crn o x f mis st : coherent o st -> coherent o (fst (op_crn o x f mis st)).
Proof.
  intros H. rewrite op_crn_cases. destruct (hs_net x) eqn:E; [exact H|].
  assert (F : coherent o (full o x)) by (apply coherent_full; rewrite E; discriminate).
  destruct f; [apply coherent_nondeg|]; exact F.
Qed.

Lemma coherent_apply o c st : coherent o st -> coherent o (fst (apply_op o c st)).
Proof.
  intros H. unfold apply_op. destruct (c_op c); simpl;
    [apply coherent_summary|apply coherent_linkage|apply coherent_one|apply coherent_nondeg|apply coherent_crn|..]; exact H.
Qed.

(** after ANY sequence of public calls (with ANY networks handed to them: the caller may edit the network between two calls)
    the object is coherent *)
Theorem api_invariant o cs : coherent o (run_calls o cs ast_init).
Proof.
  unfold run_calls. generalize (coherent_init o). generalize ast_init.
  induction cs as [|c cs IH]; intros st H; simpl; [exact H|]. apply IH. apply coherent_apply. exact H.
Qed.

(** the same, spelled out: what the accessors report after any call sequence *)
Theorem api_one_network o cs :
  let st := run_calls o cs ast_init in
  match s_sum st with
  | None => s_ld st = None /\ s_one st = None /\ s_nd st = None
  | Some sn =>
      let x := sn_x sn in
      let cg := complex_graph (hs_net x) (hs_iso x) in
      hs_net x <> [] /\
      sn_cs sn = fst cg /\ sn_arcs sn = snd cg /\ sn_sum sn = compute_summary (hs_net x) (hs_iso x) (the_rank o x) /\
      (forall ld, s_ld st = Some ld ->
         ld = linkage_deficiencies (linkage_classes (snd cg) (length (fst cg))) (map rc_r (hs_ccs x))) /\
      (forall d, s_one st = Some d ->
         s_ld st = Some (one_ld d) /\ one_delta d = deficiency (sn_sum sn) /\
         one_reg d = regular (snd cg) (length (fst cg)) /\
         one_hyp d = deficiency_one_hypotheses (sn_sum sn) (one_ld d) (one_reg d)) /\
      (forall d, s_nd st = Some d -> nd_max d = max_complex_size (fst cg))
  end.
Proof.
  intros st. pose proof (api_invariant o cs) as H. fold st in H. unfold coherent in H.
  destruct (s_sum st) as [[x cs0 arcs0 sm]|]; [|exact H]. destruct H as (NE & Hs & Hl & Ho & Hn).
  unfold snap_of in Hs. simpl in *. injection Hs as -> -> ->.
  split; [exact NE|]. repeat (split; [reflexivity|]). split; [|split; [|exact Hn]].
  - intros ld El. destruct Hl as [Hl|Hl]; rewrite El in Hl; [discriminate|]. injection Hl as ->. reflexivity.
  - intros d Ed. destruct Ho as [Ho|[Ho1 Ho2]]; rewrite Ed in *; [discriminate|]. injection Ho2 as ->.
    split; [exact Ho1|]. repeat split.
Qed.

(** the last clause of the property at the level of the API: whatever was called before, with whatever edits in between,
    the class deficiencies the object reports never sum to more than the deficiency it reports next to them (ranks
    justified by accepted certificates of the network of the last compute_summary; rank_fn given) *)
Theorem api_linkage_sum o cs sn ld :
  let st := run_calls o cs ast_init in
  o_rank o = true -> s_sum st = Some sn -> s_ld st = Some ld ->
  certs_ok (hs_net (sn_x sn)) (hs_iso (sn_x sn)) (hs_rc (sn_x sn)) (hs_ccs (sn_x sn)) = true ->
  (zsum ld <= deficiency (sn_sum sn))%Z.
Proof.
  intros st R E El C. pose proof (api_one_network o cs) as H. cbv zeta in H. fold st in H. rewrite E in H.
  destruct H as (_ & _ & _ & Hs & Hl & _). rewrite (Hl ld El), Hs. unfold the_rank. rewrite R.
  apply SK.proof.C19_Rank.linkage_sum. exact C.
Qed.

(* ------------------------------------------------------------------ full route: fresh from any state *)

Definition to_old (st : ast) : astate :=
  AState (option_map (fun sn => (sn_cs sn, sn_arcs sn, sn_sum sn)) (s_sum st)) (s_ld st)
         (option_map (fun d => (one_hyp d, one_reg d)) (s_one st)).

(** with the default options a complete analysis is the state the staged machine of model/C19_Model.v (evaluated for the
    histories) reaches *)
Lemma full_route x : to_old (full default_opts x) = route 0 x a_init.
Proof. reflexivity. Qed.

(** compute_crn_deficiency from ANY previous state: a network without reactions -> ValueError, object untouched; otherwise
    result and new state are those of a brand-new object, and that state is the one of the staged machine *)
Theorem api_full_route o x f mis st :
  (hs_net x = [] -> op_crn o x f mis st = (st, RValueError)) /\
  (hs_net x <> [] -> op_crn o x f mis st = op_crn o x f mis ast_init) /\
  (hs_net x <> [] -> to_old (fst (op_crn default_opts x false [] st)) = route 0 x a_init).
Proof.
  split; [intros E; rewrite op_crn_cases, E; reflexivity|].
  split; intros NE; rewrite !op_crn_ok by exact NE; [reflexivity|apply full_route].
Qed.

(* ------------------------------------------------------------------ error codes *)

(** a call that raises leaves the object untouched — except compute_crn_deficiency(run_nondegeneracy=True) failing in its
    LAST stage, which leaves the state of compute_crn_deficiency() *)
Lemma op_one_error o x st : is_error (snd (op_one o x st)) = true -> fst (op_one o x st) = st.
Proof.
  destruct (s_sum st) as [sn|] eqn:E; [rewrite (op_one_some o x st sn E); discriminate|].
  rewrite (op_one_none o x st E). destruct (hs_net x); [reflexivity|discriminate].
Qed.
Theorem api_errors o c st :
  is_error (snd (apply_op o c st)) = true ->
  fst (apply_op o c st) = st \/
  (c_op c = OCrn true /\ fst (apply_op o c st) = fst (op_crn o (c_x c) false [] st)).
Proof.
  unfold apply_op. destruct (c_op c) as [| | | |f| | |]; simpl; intros H; try (left; reflexivity).
  - left. unfold op_summary in *. destruct (hs_net (c_x c)); [reflexivity|simpl in H; discriminate].
  - left. unfold op_linkage in *. destruct (s_sum st); [simpl in H; discriminate|reflexivity].
  - left. apply op_one_error. exact H.
  - left. apply op_nondeg_error. exact H.
  - rewrite !op_crn_cases in *. destruct (hs_net (c_x c)); [left; reflexivity|].
    destruct f; [|discriminate H]. right. split; [reflexivity|]. apply op_nondeg_error. exact H.
Qed.

Lemma op_one_value_error o x st : snd (op_one o x st) = RValueError <-> s_sum st = None /\ hs_net x = [].
Proof.
  destruct (s_sum st) as [sn|] eqn:E.
  - rewrite (op_one_some o x st sn E). split; [discriminate|intros [? _]; discriminate].
  - rewrite (op_one_none o x st E). destruct (hs_net x); split; try discriminate; auto. intros [_ ?]; discriminate.
Qed.

Theorem api_preconditions o x mis st :
  (snd (op_summary o x st) = RValueError <-> hs_net x = []) /\
  (snd (op_linkage st) = RRuntime 2 <-> s_sum st = None) /\
  (op_check0 st = RRuntime 3 <-> s_sum st = None) /\
  (op_check1 st = RRuntime 4 <-> s_sum st = None) /\
  (op_check1 st = RRuntime 5 <-> s_sum st <> None /\ s_ld st = None) /\
  (op_reg st = RRuntime 6 <-> s_sum st = None) /\
  (snd (op_nondeg o x mis st) = RRuntime 7 <-> o_stoich o = false) /\
  (snd (op_nondeg o x mis st) = RRuntime 8 <-> o_stoich o = true /\ s_sum st = None) /\
  (snd (op_one o x st) = RValueError <-> s_sum st = None /\ hs_net x = []).
Proof.
  repeat match goal with |- _ /\ _ => split end; try apply op_one_value_error.
  - unfold op_summary. destruct (hs_net x); simpl; split; congruence.
  - unfold op_linkage. destruct (s_sum st); simpl; split; congruence.
  - unfold op_check0. destruct (s_sum st); split; congruence.
  - unfold op_check1. destruct (s_sum st), (s_ld st); split; congruence.
  - unfold op_check1. destruct (s_sum st), (s_ld st); (split; [intros H; split; congruence|intros [? ?]; congruence]).
  - unfold op_reg. destruct (s_sum st); split; congruence.
  - unfold op_nondeg. destruct (o_stoich o); simpl; [|split; reflexivity]. split; [|discriminate].
    destruct (s_sum st); [destruct (hs_net x); [|destruct (nondeg _ _ _ _)]|]; discriminate.
  - unfold op_nondeg. destruct (o_stoich o); simpl; [|split; [discriminate|intros [? _]; discriminate]].
    destruct (s_sum st); [|split; auto]. split; [|intros [_ ?]; discriminate].
    destruct (hs_net x); [|destruct (nondeg _ _ _ _)]; discriminate.
Qed.

(* ------------------------------------------------------------------ nondegeneracy_test: the logic part *)

Lemma fold_max_ge {A} (f : A -> Z) (l : list A) : forall a, let m := fold_left (fun acc x => Z.max acc (f x)) l a in
  (a <= m)%Z /\ (forall x, In x l -> (f x <= m)%Z) /\ (m = a \/ exists x, In x l /\ m = f x).
Proof.
  induction l as [|c l IH]; intros a; simpl.
  - split; [lia|]. split; [intros c []|left; reflexivity].
  - destruct (IH (Z.max a (f c))) as (G1 & G2 & G3). split; [lia|]. split.
    + intros c' [<-|I]; [lia|apply G2; exact I].
    + destruct G3 as [G3|(c' & I & G3)].
      * destruct (Z.max_spec a (f c)) as [[_ M]|[_ M]].
        -- right. exists c. split; [left; reflexivity|rewrite G3; exact M].
        -- left. rewrite G3. exact M.
      * right. exists c'. split; [right; exact I|exact G3].
Qed.

(** max_complex_size: the largest total coefficient of a stored complex (0 for an empty list) *)
Theorem max_complex_size_spec cs :
  (cs = [] -> max_complex_size cs = 0%Z) /\
  (cs <> [] -> (exists c, In c cs /\ complex_size c = max_complex_size cs) /\
               forall c, In c cs -> (complex_size c <= max_complex_size cs)%Z).
Proof.
  split; [intros ->; reflexivity|]. destruct cs as [|c0 cs]; [congruence|]. intros _. simpl.
  destruct (fold_max_ge complex_size cs (complex_size c0)) as (G1 & G2 & G3). split.
  - destruct G3 as [G3|(c & I & G3)]; [exists c0; split; [left; reflexivity|symmetry; exact G3]|exists c; split; [right; exact I|symmetry; exact G3]].
  - intros c [<-|I]; [exact G1|apply G2; exact I].
Qed.

(** the scan of one basis vector: IndexError only if some complex of maximal size is shorter than the position; without
    it the flag says whether a complex of maximal size contains the species at that position *)
Theorem nd_scan_spec cs mx i :
  (nd_scan cs mx i = None -> exists c, In c cs /\ complex_size c = mx /\ length c <= i) /\
  (forall b, nd_scan cs mx i = Some b ->
     (b = true <-> exists c, In c cs /\ complex_size c = mx /\ (0 < nth i c 0)%Z)) /\
  ((forall c, In c cs -> i < length c) -> nd_scan cs mx i <> None).
Proof.
  induction cs as [|c cs (IH1 & IH2 & IH3)]; simpl.
  - split; [discriminate|]. split; [|discriminate]. intros b [= <-]. split; [discriminate|intros (c & [] & _)].
  - assert (K : forall (P : list Z -> Prop), ~ P c -> ((exists c', (c = c' \/ In c' cs) /\ P c') <-> exists c', In c' cs /\ P c')).
    { intros P N. split; intros (c' & I & H); [destruct I as [<-|I]; [destruct (N H)|]|]; eauto. }
    destruct (Z.eqb_spec (complex_size c) mx) as [E|NE];
      [destruct (Nat.ltb_spec i (length c)) as [Lt|Ge]; [destruct (Z.ltb_spec 0 (nth i c 0%Z)) as [P|NP]|]|].
    + split; [discriminate|]. split; [|discriminate]. intros b [= <-]. split; [eauto|reflexivity].
    + split; [intros H; destruct (IH1 H) as (c' & I & H'); eauto|]. split; [|intros H; apply IH3; auto].
      intros b Eb. rewrite (IH2 b Eb). symmetry. apply (K (fun c' => complex_size c' = mx /\ (0 < nth i c' 0)%Z)). lia.
    + split; [eauto|]. split; [discriminate|]. intros H. specialize (H c (or_introl eq_refl)). lia.
    + split; [intros H; destruct (IH1 H) as (c' & I & H'); eauto|]. split; [|intros H; apply IH3; auto].
      intros b Eb. rewrite (IH2 b Eb). symmetry. apply (K (fun c' => complex_size c' = mx /\ (0 < nth i c' 0)%Z)). tauto.
Qed.

Lemma all_some_none {A} (l : list (option A)) : all_some l = None -> In None l.
Proof.
  induction l as [|[a|] l IH]; simpl; [discriminate| |intros _; left; reflexivity].
  destruct (all_some l); [discriminate|]. intros _. right. apply IH. reflexivity.
Qed.

(** nondegeneracy_test directly after compute_summary of the SAME network never raises IndexError (the positions come from
    vectors over the current species) ... *)
Theorem api_nondeg_no_index_error o x mis st : s_sum st = Some (snap_of o x) ->
  (forall i, In i mis -> i < length (species_order (hs_net x) (hs_iso x))) ->
  snd (op_nondeg o x mis st) <> RIndexError.
Proof.
  intros E Hm. unfold op_nondeg. destruct (negb (o_stoich o)); [discriminate|]. rewrite E.
  destruct (hs_net x) eqn:En; [discriminate|]. rewrite <- En in Hm. rewrite <- En. unfold nondeg. simpl sn_cs.
  destruct (all_some _) as [fl|] eqn:A; [discriminate|]. exfalso.
  apply all_some_none in A. apply in_map_iff in A. destruct A as (i & A & I).
  revert A. apply (proj2 (proj2 (nd_scan_spec _ _ i))). intros c Ic. rewrite (SK.proof.C19_Bridge.complexes_length _ _ _ Ic). apply Hm. exact I.
Qed.

(** ... but after an edit that ADDS species, without a new compute_summary, it does: S is rebuilt from the current
    network while the complexes are the stored ones.  A -> B analysed, B -> 2C + D added, nondegeneracy_test():
    the left kernel of the new S has a basis vector whose largest entry is at position 3; the stored complexes have width 2. *)
Definition nd_r1 : rxn := ([49%N], [114%N], [([65%N], 1%Z)], [([66%N], 1%Z)]).
Definition nd_r2 : rxn := ([50%N], [114%N], [([66%N], 1%Z)], [([67%N], 2%Z); ([68%N], 1%Z)]).
Definition nd_x1 : hist_step := ([nd_r1], [], only_r 1, [only_r 1]).
Definition nd_x2 : hist_step := ([nd_r1; nd_r2], [], only_r 2, [only_r 2]).
Definition nd_calls : list call := [(OCrn true, nd_x1, [1]); (ONondeg, nd_x2, [0; 3])].
Example ex_nondeg_after_edit :
  snd (apply_op default_opts (ONondeg, nd_x2, [0; 3]) (run_calls default_opts [(OCrn true, nd_x1, [1])] ast_init)) = RIndexError /\
  option_map nd_nullity (s_nd (run_calls default_opts [(OCrn true, nd_x1, [1])] ast_init)) = Some 1 /\
  option_map nd_max (s_nd (run_calls default_opts [(OCrn true, nd_x1, [1]); (OSummary, nd_x2, []); (ONondeg, nd_x2, [0; 3])] ast_init)) = Some 3%Z /\
  option_map nd_per (s_nd (run_calls default_opts [(OCrn true, nd_x1, [1]); (OSummary, nd_x2, []); (ONondeg, nd_x2, [0; 3])] ast_init))
    = Some [(0, false); (3, true)].
Proof. repeat apply conj; vm_compute; reflexivity. Qed.


(** A -> 2A -> 3A analysed, 2A -> 3A removed WITHOUT a new compute_summary, then compute_linkage_deficiencies and the
    deficiency-one front end: everything reported still describes the first network (deficiency 1, classes [1]) — coherent;
    after compute_summary the derived fields are gone; a full route gives the second network's values. *)
Definition ex_calls1 : list call := [(OCrn false, lad_x1, []); (OLinkage, lad_x2, []); (OOne, lad_x2, [])].
Definition ex_calls2 : list call := ex_calls1 ++ [(OSummary, lad_x2, [])].
Definition ex_calls3 : list call := ex_calls2 ++ [(OOne, lad_x2, [])].
Example ex_api :
  s_ld (run_calls default_opts ex_calls1 ast_init) = Some [1%Z] /\
  option_map (fun sn => deficiency (sn_sum sn)) (s_sum (run_calls default_opts ex_calls1 ast_init)) = Some 1%Z /\
  s_ld (run_calls default_opts ex_calls2 ast_init) = None /\ s_one (run_calls default_opts ex_calls2 ast_init) = None /\
  option_map (fun sn => deficiency (sn_sum sn)) (s_sum (run_calls default_opts ex_calls2 ast_init)) = Some 0%Z /\
  s_ld (run_calls default_opts ex_calls3 ast_init) = Some [0%Z] /\
  op_check1 (run_calls default_opts ex_calls2 ast_init) = RRuntime 5 /\
  op_check1 (run_calls default_opts ex_calls1 ast_init) = RBool true /\
  op_check0 ast_init = RRuntime 3 /\
  snd (op_nondeg (Opts false true) lad_x1 [] (run_calls (Opts false true) ex_calls1 ast_init)) = RRuntime 7 /\
  option_map (fun sn => stoich_rank (sn_sum sn)) (s_sum (run_calls (Opts true false) ex_calls1 ast_init)) = Some 0.
Proof. repeat apply conj; vm_compute; reflexivity. Qed.

Example ex_max_complex_size : max_complex_size [[1; 1; 0]; [0; 0; 1]; [2; 0; 1]]%Z = 3%Z /\ max_complex_size [] = 0%Z /\
  nd_scan [[1; 1; 0]; [0; 0; 1]; [2; 0; 1]]%Z 3%Z 2 = Some true /\ nd_scan [[1; 1; 0]; [0; 0; 1]; [2; 0; 1]]%Z 3%Z 1 = Some false /\
  nd_scan [[1; 1; 0]; [0; 0; 1]; [2; 0; 1]]%Z 3%Z 5 = None.
Proof. repeat split. Qed.

(* ------------------------------------------------------------------ where the stored network comes from *)

Lemma apply_op_sum o c st :
  s_sum (fst (apply_op o c st)) = s_sum st \/ s_sum (fst (apply_op o c st)) = Some (snap_of o (c_x c)).
Proof.
  unfold apply_op. destruct (c_op c) as [| | | |f| | |]; simpl; auto.
  - unfold op_summary. destruct (hs_net (c_x c)); auto.
  - left. unfold op_linkage. destruct (s_sum st) eqn:E; [reflexivity|exact E].
  - destruct (s_sum st) as [sn|] eqn:E; [rewrite (op_one_some _ _ _ _ E); auto|].
    rewrite (op_one_none _ _ _ E). destruct (hs_net (c_x c)); auto.
  - left. apply nondeg_keeps_sum.
  - rewrite op_crn_cases. destruct (hs_net (c_x c)); auto. right. destruct f; [rewrite nondeg_keeps_sum|]; reflexivity.
Qed.

(** the network the object describes is one of the networks handed to a call; in particular when the network is never edited
    (every call carries the same x) the object describes x: every reported value is the value of a fresh analysis of x *)
Theorem api_origin o cs sn : s_sum (run_calls o cs ast_init) = Some sn -> exists c, In c cs /\ sn = snap_of o (c_x c).
Proof.
  unfold run_calls. assert (G : forall st, s_sum (fold_left (fun s c => fst (apply_op o c s)) cs st) = Some sn ->
                                 s_sum st = Some sn \/ exists c, In c cs /\ sn = snap_of o (c_x c)).
  { induction cs as [|c cs IH]; intros st H; simpl in *; [left; exact H|].
    destruct (IH _ H) as [H'|(c' & I & E)]; [|right; exists c'; split; [right; exact I|exact E]].
    destruct (apply_op_sum o c st) as [E|E]; rewrite E in H'; [left; exact H'|].
    right. exists c. split; [left; reflexivity|congruence]. }
  intros H. destruct (G ast_init H) as [H'|H']; [discriminate H'|exact H'].
Qed.

Corollary api_no_edit_fresh o cs x sn : (forall c, In c cs -> c_x c = x) ->
  s_sum (run_calls o cs ast_init) = Some sn -> sn = snap_of o x.
Proof. intros Hx H. destruct (api_origin o cs sn H) as (c & I & ->). f_equal. exact (Hx c I). Qed.

(* ------------------------------------------------------------------ max_complex_size = the largest molecularity of a reaction side *)

Definition side_total (sd : side) : Z := fold_right (fun p acc => (snd p + acc)%Z) 0%Z sd.

Lemma sum_indicator (x : str) (c : Z) (sp : list str) : NoDup sp -> In x sp ->
  fold_right Z.add 0%Z (map (fun s => if streqb x s then c else 0%Z) sp) = c.
Proof.
  induction sp as [|s sp IH]; intros ND I; [destruct I|]. simpl. inversion ND as [|? ? Hn ND']; subst.
  destruct I as [E|I]; [subst s|].
  - rewrite streqb_refl. assert (Z0 : fold_right Z.add 0%Z (map (fun s => if streqb x s then c else 0%Z) sp) = 0%Z).
    { clear IH ND ND'. induction sp as [|s sp IH]; simpl; [reflexivity|]. rewrite streqb_neq by (intros ->; apply Hn; left; reflexivity).
      rewrite IH; [reflexivity|]. intros H. apply Hn. right. exact H. }
    rewrite Z0. lia.
  - rewrite streqb_neq by (intros ->; contradiction). rewrite (IH ND' I). lia.
Qed.

Lemma sum_map_plus (f g : str -> Z) sp :
  fold_right Z.add 0%Z (map (fun s => (f s + g s)%Z) sp) = (fold_right Z.add 0%Z (map f sp) + fold_right Z.add 0%Z (map g sp))%Z.
Proof. induction sp as [|s sp IH]; simpl; [reflexivity|]. rewrite IH. lia. Qed.

(** a side whose species all belong to the species order has total coefficient = size of its vector *)
Lemma complex_size_side net iso sd : (forall s, In s (map fst sd) -> In s (species_order net iso)) ->
  complex_size (side_vec net iso sd) = side_total sd.
Proof.
  unfold complex_size, side_vec. induction sd as [|[x c] sd IH]; intros H; simpl.
  - clear H. induction (species_order net iso) as [|s sp IHs]; simpl; [reflexivity|]. rewrite IHs. reflexivity.
  - assert (E : map (fun s => if streqb x s then (c + amount s sd)%Z else amount s sd) (species_order net iso)
              = map (fun s => ((if streqb x s then c else 0) + amount s sd)%Z) (species_order net iso)).
    { apply map_ext. intros s. destruct (streqb x s); lia. }
    rewrite E, sum_map_plus, sum_indicator; [|apply SK.proof.C17_Nodes.sp_nodup|apply H; left; reflexivity].
    rewrite IH; [reflexivity|]. intros s I. apply H. right. exact I.
Qed.

(** with unique edge ids: max_complex_size of the complexes of a network = the largest total coefficient (molecularity) of a
    reactant or product side of its reactions *)
Theorem max_complex_size_molecularity net iso : NoDup (map rid net) -> net <> [] ->
  let mx := max_complex_size (fst (complex_graph net iso)) in
  (exists e ro, In e net /\ side_total (side_of ro e) = mx) /\
  (forall e ro, In e net -> (side_total (side_of ro e) <= mx)%Z).
Proof.
  intros ND NE mx. destruct (complexes_spec net iso ND) as (_ & Hin & _).
  assert (Hsz : forall e ro, In e net -> complex_size (side_vec net iso (side_of ro e)) = side_total (side_of ro e)).
  { intros e ro I. apply complex_size_side. intros s Is. apply (side_species_in net iso ro e s I Is). }
  assert (NEc : fst (complex_graph net iso) <> []).
  { destruct net as [|e net']; [congruence|]. intros E. assert (I : In (side_vec (e :: net') iso (rlhs e)) (fst (complex_graph (e :: net') iso))).
    { apply Hin. exists e. split; [left; reflexivity|left; reflexivity]. } rewrite E in I. destruct I. }
  destruct (max_complex_size_spec (fst (complex_graph net iso))) as [_ H]. destruct (H NEc) as ((c & Ic & Ec) & Hle). split.
  - apply Hin in Ic. destruct Ic as (e & Ie & [->| ->]); [exists e, Reactant|exists e, Product]; (split; [exact Ie|]);
      unfold mx; rewrite <- Ec; symmetry; [apply (Hsz e Reactant Ie)|apply (Hsz e Product Ie)].
  - intros e ro Ie. rewrite <- (Hsz e ro Ie). apply Hle. apply Hin. exists e. split; [exact Ie|]. destruct ro; [left|right]; reflexivity.
Qed.

Example ex_molecularity : max_complex_size (fst (complex_graph C19_Complexes.ex_net [])) = 2%Z /\ side_total [([65%N], 2%Z)] = 2%Z.
Proof. split; vm_compute; reflexivity. Qed.

(* ------------------------------------------------------------------ the last summary wins *)

(** a call that (re)computes the summary on a network with reactions stores exactly that network, whatever was stored before:
    compute_summary, compute_crn_deficiency, and run_deficiency_one_algorithm on an object without a summary *)
Theorem api_summary_current o c st : hs_net (c_x c) <> [] ->
  (c_op c = OSummary \/ (exists f, c_op c = OCrn f) \/ (c_op c = OOne /\ s_sum st = None)) ->
  s_sum (fst (apply_op o c st)) = Some (snap_of o (c_x c)).
Proof.
  intros NE H. unfold apply_op. destruct H as [->|[(f & ->)| [-> E]]].
  - rewrite op_summary_ok by exact NE. reflexivity.
  - rewrite op_crn_ok by exact NE. destruct f; [rewrite nondeg_keeps_sum|]; reflexivity.
  - rewrite (op_one_none _ _ _ E). destruct (hs_net (c_x c)); [congruence|reflexivity].
Qed.

(* ------------------------------------------------------------------ frame: which stored groups a call may write *)

(** compute_linkage_deficiencies writes the class deficiencies only; nondegeneracy_test writes its own record only (in
    particular it does not touch the stored complexes); the three checks write nothing; run_deficiency_one_algorithm never
    touches the nondegeneracy record and keeps a summary / class deficiencies that were already stored (on an object that has a summary) *)
Theorem api_frame o c st :
  let st' := fst (apply_op o c st) in
  (c_op c = OLinkage -> s_sum st' = s_sum st /\ s_one st' = s_one st /\ s_nd st' = s_nd st) /\
  (c_op c = ONondeg -> s_sum st' = s_sum st /\ s_ld st' = s_ld st /\ s_one st' = s_one st) /\
  (c_op c = OCheck0 \/ c_op c = OCheck1 \/ c_op c = OReg -> st' = st) /\
  (c_op c = OOne -> s_sum st <> None ->
     s_nd st' = s_nd st /\ s_sum st' = s_sum st /\ (s_ld st <> None -> s_ld st' = s_ld st)).
Proof.
  intros st'. subst st'. unfold apply_op. split; [|split; [|split]].
  - intros ->. unfold op_linkage. destruct (s_sum st) eqn:Es; simpl; rewrite ?Es; auto.
  - intros ->. destruct (op_nondeg_cases o (c_x c) (c_mis c) st) as [[-> _]|(sn & d & _ & _ & ->)]; auto.
  - intros [-> | [-> | ->]]; reflexivity.
  - intros -> NS. destruct (s_sum st) as [sn|] eqn:Es; [|congruence]. rewrite (op_one_some _ _ _ _ Es). simpl.
    split; [reflexivity|]. split; [reflexivity|]. destruct (s_ld st); congruence.
Qed.

(* ------------------------------------------------------------------ the routes of the staged machine are scripts of public calls *)

Definition script_of (style : nat) (x : hist_step) : list call :=
  match style with
  | 2 => [(OSummary, x, []); (OOne, x, [])]
  | 1 => [(OSummary, x, []); (OLinkage, x, []); (OOne, x, [])]
  | _ => [(OCrn false, x, [])]
  end.

(** the three routes of model/C19_Model.v (evaluated for the history populations) are the call scripts
    [compute_crn_deficiency] / [compute_summary; compute_linkage_deficiencies; run_deficiency_one_algorithm] /
    [compute_summary; run_deficiency_one_algorithm] of the API machine, from any state *)
Lemma script_full o style x st : hs_net x <> [] -> run_calls o (script_of style x) st = full o x.
Proof.
  intros NE.
  assert (S : fst (op_summary o x st) = ASt (Some (snap_of o x)) None None None) by (rewrite op_summary_ok by exact NE; reflexivity).
  assert (C : fst (op_crn o x false [] st) = full o x) by (rewrite op_crn_ok by exact NE; reflexivity).
  destruct style as [|[|[|n]]]; [exact C| | |exact C].
  - change (fst (op_one o x (fst (op_linkage (fst (op_summary o x st))))) = full o x). rewrite S. reflexivity.
  - change (fst (op_one o x (fst (op_summary o x st))) = full o x). rewrite S. reflexivity.
Qed.

Theorem routes_are_scripts style x st : hs_net x <> [] ->
  to_old (run_calls default_opts (script_of style x) st) = route style x (to_old st).
Proof. intros NE. rewrite route_fresh, (script_full _ _ _ _ NE). apply full_route. Qed.

(* ------------------------------------------------------------------ the one-shot route with the nondegeneracy test *)

(** compute_crn_deficiency(run_nondegeneracy=True) that returns normally leaves, from ANY state, all four groups of the CURRENT
    network: its summary group, its class deficiencies, the deficiency-one record built from them, and a nondegeneracy record
    with the nullity (species - rank) and the largest complex size of this network *)
Theorem api_crn_nondeg_current o x mis st st' : op_crn o x true mis st = (st', ROk) ->
  let sn := snap_of o x in
  s_sum st' = Some sn /\ s_ld st' = Some (stored_ld sn) /\ s_one st' = Some (stored_one sn (stored_ld sn)) /\
  exists d, s_nd st' = Some d /\
            nd_nullity d = length (species_order (hs_net x) (hs_iso x)) - rc_r (hs_rc x) /\
            nd_max d = max_complex_size (fst (complex_graph (hs_net x) (hs_iso x))).
Proof.
  intros H. assert (NE : hs_net x <> []) by (intros E; rewrite op_crn_cases, E in H; discriminate).
  rewrite (op_crn_ok o x true mis st NE) in H.
  destruct (op_nondeg_cases o x mis (full o x)) as [[_ Er]|(sn & d & Es & D & Eq)]; [rewrite H in Er; discriminate|].
  rewrite Eq in H. injection H as <-. simpl in Es. injection Es as <-.
  repeat (split; [reflexivity|]). exists d. split; [reflexivity|].
  destruct (nondeg_max _ _ _ _ _ D) as (A & B & _). split; [exact B|exact A].
Qed.
