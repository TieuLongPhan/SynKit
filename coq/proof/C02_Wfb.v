(** C02 — a boolean test that implies [wf], for the concrete witness graphs of the non-vacuity examples. *)
From Coq Require Import List NArith Bool.
From SK Require Import lib.LGraph lib.C01_GraphLemmas.
Import ListNotations.

Fixpoint nodupb (l : list N) : bool :=
  match l with [] => true | x :: r => negb (LGraph.mem x r) && nodupb r end.

Fixpoint simpleb {B} (es : list (N * N * B)) : bool :=
  match es with
  | [] => true
  | (a, b, _) :: r => match find_edge a b r with None => simpleb r | Some _ => false end
  end.

Definition wfb {A B} (g : lgraph A B) : bool :=
  nodupb (node_ids g) &&
  forallb (fun e : N * N * B => let '(a, b, _) := e in
             LGraph.mem a (node_ids g) && LGraph.mem b (node_ids g) && negb (N.eqb a b)) (gedges g) &&
  simpleb (gedges g).

Lemma nodupb_sound l : nodupb l = true -> NoDup l.
Proof.
  induction l as [|x r IH]; simpl; [constructor|]. rewrite andb_true_iff, negb_true_iff. intros [M R].
  constructor; [|apply IH; exact R]. intros I. apply LGraph.mem_spec in I. congruence.
Qed.

Lemma simpleb_sound {B} (es : list (N * N * B)) : simpleb es = true -> simple es.
Proof.
  induction es as [|[[a b] x] r IH]; simpl; [constructor|].
  destruct (find_edge a b r) eqn:F; [discriminate|]. intros R. constructor; [exact F|apply IH; exact R].
Qed.

Lemma wfb_sound {A B} (g : lgraph A B) : wfb g = true -> wf g.
Proof.
  unfold wfb. rewrite !andb_true_iff. intros [[Hn He] Hs]. apply wf_intro.
  - apply nodupb_sound. exact Hn.
  - intros a b x I. rewrite forallb_forall in He. specialize (He _ I). simpl in He.
    rewrite !andb_true_iff, !LGraph.mem_spec, negb_true_iff, N.eqb_neq in He. tauto.
  - apply simpleb_sound. exact Hs.
Qed.

(** a property of every bond / every atom of a concrete graph, decided by a boolean test *)
Lemma edges_all {A B} (g : lgraph A B) (p : N * N * B -> bool) (P : N -> N -> B -> Prop) :
  (forall u v x, p (u, v, x) = true -> P u v x) -> forallb p (gedges g) = true ->
  forall u v x, In (u, v, x) (gedges g) -> P u v x.
Proof. intros H F u v x I. apply H. rewrite forallb_forall in F. exact (F _ I). Qed.

Lemma nodes_all {A B} (g : lgraph A B) (p : N * A -> bool) (P : N -> A -> Prop) :
  (forall n a, p (n, a) = true -> P n a) -> forallb p (gnodes g) = true ->
  forall n a, In (n, a) (gnodes g) -> P n a.
Proof. intros H F n a I. apply H. rewrite forallb_forall in F. exact (F _ I). Qed.
