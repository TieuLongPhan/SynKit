(** C14 — SynCRN.build: parallel network expansion equals serial expansion, and every result that reaches
    the integration step carries the index of the rule that produced it. *)
From Coq Require Import NArith List Arith.
Import ListNotations.
From SK Require Import model.C14_CrnModel proof.C14_Pool.
Local Open Scope nat_scope.

(** ** parallel build = serial build: the theorems of proof/C14_Pool.v at the pool [par_map], where the parametrised functions
    are the functions of the model ([run_tasks_instance], [build_from_instance], [builds_from_instance], [rows_instances]) *)

Lemma run_tasks_eq parallel workers t tasks :
  run_tasks parallel workers t tasks = map (apply_rule_worker t) tasks.
Proof. rewrite <- run_tasks_instance. apply run_tasks_with_eq, par_map_contract. Qed.

Lemma main_crn_parallel_equals_serial :
  forall (c : crn_cfg) (parallel : bool) (workers : nat) (t : exec_table) (seeds : list (option N)),
  build c parallel workers t seeds = build c false 0 t seeds.
Proof. intros. unfold build. rewrite <- !build_from_instance. apply build_from_with_serial, par_map_contract. Qed.

Lemma main_crn_builds_parallel_equals_serial :
  forall (c : crn_cfg) (parallel : bool) (workers : nat) (t : exec_table) (calls : list (list (option N))) (st0 : crn_state),
  builds_from c parallel workers t st0 calls = builds_from c false 0 t st0 calls.
Proof. intros. rewrite <- !builds_from_instance. apply builds_with_parallel_equals_serial, par_map_contract. Qed.

(** ** every task carries the rule of its index; every result the index and mixture of its task *)

Definition task_ok (rules : list (nat * N)) (tk : task) : Prop :=
  exists ar, nth_error rules (t_idx tk) = Some (ar, t_rule tk).

Lemma tasks_of_mixes_ok rules index ridx ar cid mixes : forall seen budget acc,
  nth_error rules ridx = Some (ar, cid) ->
  Forall (task_ok rules) acc ->
  Forall (task_ok rules) (snd (tasks_of_mixes index ridx cid mixes seen budget acc)).
Proof.
  induction mixes as [|m ms IH]; intros seen budget acc Hn Hacc; simpl; [exact Hacc|].
  destruct (budget =? 0)%N; [exact Hacc|].
  destruct (seen_mem ridx m seen); [apply IH; assumption|].
  destruct (forallb (has_key index) m); apply IH; try assumption.
  apply Forall_app. split; [exact Hacc|]. constructor; [|constructor]. exists ar. exact Hn.
Qed.

Lemma tasks_of_rules_ok c all index pool fr rs : forall ridx seen budget acc,
  (forall k rc, nth_error rs k = Some rc -> nth_error all (ridx + k) = Some rc) ->
  Forall (task_ok all) acc ->
  Forall (task_ok all) (snd (tasks_of_rules c index pool fr ridx rs seen budget acc)).
Proof.
  induction rs as [|[ar cid] rs IH]; intros ridx seen budget acc Hrs Hacc; simpl; [exact Hacc|].
  assert (Hrs' : forall k rc, nth_error rs k = Some rc -> nth_error all (S ridx + k) = Some rc).
  { intros k rc Hk. rewrite Nat.add_succ_comm. apply Hrs. exact Hk. }
  destruct (budget =? 0)%N; [exact Hacc|].
  destruct (cc_max_components c <? ar); [apply IH; assumption|].
  pose proof (tasks_of_mixes_ok all index ridx ar cid
                (capped (N.min (cc_max_mix c) budget) (mixtures (cc_use_frontier c) ar pool fr)) seen budget acc) as H.
  destruct (tasks_of_mixes index ridx cid _ seen budget acc) as [[seen' budget'] acc'].
  apply IH; [exact Hrs'|]. apply H; [|exact Hacc].
  specialize (Hrs 0 (ar, cid) eq_refl). now rewrite Nat.add_0_r in Hrs.
Qed.

Lemma main_crn_results_attributed :
  forall (c : crn_cfg) (parallel : bool) (workers : nat) (t : exec_table)
         (index : list (N * N)) (pool frontier : list N) (seen : list (nat * mixt)) (r : result),
  In r (run_tasks parallel workers t
          (snd (tasks_of_rules c index pool frontier 0 (cc_rules c) seen (cc_max_tasks c) []))) ->
  exists ar cid,
    nth_error (cc_rules c) (fst (fst r)) = Some (ar, cid) /\
    snd r = exec_lookup t cid (snd (fst r)).
Proof.
  intros c parallel workers t index pool fr seen r Hin.
  rewrite run_tasks_eq in Hin. apply in_map_iff in Hin. destruct Hin as (tk & <- & Htk).
  assert (H : Forall (task_ok (cc_rules c))
                (snd (tasks_of_rules c index pool fr 0 (cc_rules c) seen (cc_max_tasks c) []))).
  { apply tasks_of_rules_ok; [intros k rc Hk; exact Hk|constructor]. }
  rewrite Forall_forall in H. destruct (H tk Htk) as (ar & Har).
  exists ar, (t_rule tk). split; [exact Har|reflexivity].
Qed.

(** ** Non-vacuity: three rules (a three-component rule that cannot produce a task under max_components = 2, then
    two two-component rules), species 0,1,2 as seeds; rule 1 turns {0,1} into {3}, rule 2 turns {1,2} into {4,0}:
    the parallel build attributes the two events to rule indices 1 and 2 (not to the slots 0 and 1). *)
Definition ex_cfg : crn_cfg := CrnCfg [(3, 0%N); (2, 1%N); (2, 2%N)] 2 2 true false 50000%N 200000%N true false true.
Definition ex_tbl : exec_table :=
  [ ((1%N, [0%N; 1%N]), [[3%N]]); ((2%N, [1%N; 2%N]), [[4%N; 0%N]]) ].
Definition ex_seeds : list (option N) := [Some 0%N; Some 1%N; None; Some 2%N].
Definition ex_events (parallel : bool) (w : nat) : list gnode :=
  filter (fun g => match g with GEvent _ _ _ _ _ _ _ => true | _ => false end)
         (s_nodes (fst (build ex_cfg parallel w ex_tbl ex_seeds))).

Example ex_crn_parallel_events :
  ex_events true 2 = [GEvent 5 1 1 1 0 [1; 2] [4]; GEvent 7 1 2 2 0 [2; 3] [6; 1]]%N /\
  ex_events true 2 = ex_events false 0 /\
  snd (build ex_cfg true 3 ex_tbl ex_seeds) = [6; 14].
Proof. vm_compute. repeat split. Qed.

(** ** joblib.Parallel over rows: validate_smiles / dicts_balance_check (again proof/C14_Pool.v at [par_map]) *)

Lemma rows_parallel_eq {A B} n_jobs (f : A -> B) rows : rows_parallel n_jobs f rows = map f rows.
Proof. unfold rows_parallel. destruct (1 <? n_jobs); [apply par_map_contract|reflexivity]. Qed.

Lemma main_validate_workers :
  forall (A : Type) (n_jobs : nat) (check : A -> bool) (rows : list A),
  validate_column n_jobs check rows = validate_column 1 check rows /\
  fst (validate_column n_jobs check rows) = map check rows.
Proof.
  intros. rewrite <- (proj1 (rows_instances n_jobs check rows)), <- (proj1 (rows_instances 1 check rows)).
  apply validate_with_workers, par_map_contract.
Qed.

Lemma main_balance_workers :
  forall (A : Type) (n_jobs : nat) (check : A -> bool) (rows : list A),
  balance_split n_jobs check rows = (filter check rows, filter (fun r => negb (check r)) rows).
Proof. intros. rewrite <- (proj2 (rows_instances n_jobs check rows)). apply balance_with_workers, par_map_contract. Qed.

Example ex_rows_parallel :
  fst (validate_column 3 Nat.even [1; 2; 3; 4; 5; 6; 7]) = [false; true; false; true; false; true; false] /\
  balance_split 2 Nat.even [1; 2; 3; 4; 5] = ([2; 4], [1; 3; 5]).
Proof. vm_compute. split; reflexivity. Qed.
