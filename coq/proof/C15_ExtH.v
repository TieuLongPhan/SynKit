(** C15 — whole histories of the extended language: a reaction that is
    stored at some point of a history and that no later operation removes,
    strips, overwrites by a copy or coefficient-edits is still stored, under its
    id and with its stoichiometry, at the end; in particular a reaction that was
    just added. *)
From stdpp Require Import gmap strings sets.
From SK Require Import lib.Tok model.C15_Model model.C15_Ext proof.C15_Proof proof.C15_Ext.
Local Open Scope string_scope.

Definition run_world (ops : list op2) (w : world2) : world2 := fold_left (λ w o, (step2 w o).1.1) ops w.

Lemma run2_stored_kept ops : ∀ w k e rx,
  Forall Inv (nets w) → edges (getn (nets w) k) !! e = Some rx →
  Forall (λ o, ¬ may_drop2 o k e rx) ops →
  edges (getn (nets (run_world ops w)) k) !! e = Some rx.
Proof.
  induction ops as [|o ops IH]; intros w k e rx Hw He Hall; cbn; [done|].
  apply Forall_cons in Hall as [Ho Hall]. apply IH; [by apply step2_Inv| |done].
  by apply step2_stored_kept.
Qed.

Lemma run_world_length ops : ∀ w, length (nets (run_world ops w)) = length (nets w).
Proof.
  induction ops as [|o ops IH]; intros w; cbn; [done|]. unfold run_world in IH. rewrite IH. apply step2_length.
Qed.

(** "added and not removed => still present under its own id with its own
    stoichiometry": the add happens after any prefix [pre] of a history from
    empty networks; [post] is any continuation that does not name the reaction *)
Lemma history_added_kept n p pre post i l r rule eid :
  (i < n)%nat →
  (step2 (run_world pre (init_world2 n p)) (OAddItems i l r rule eid)).1.2 = None →
  ∃ e, (∀ e0, eid = Some e0 → e = e0) ∧
       (step2 (run_world pre (init_world2 n p)) (OAddItems i l r rule eid)).2 = tstr e ∧
       edges (getn (nets (run_world pre (init_world2 n p))) i) !! e = None ∧
       (Forall (λ o, ¬ may_drop2 o i e (Rxn (norm_rule rule) (normalize_items l) (normalize_items r))) post →
        edges (getn (nets (run_world post (step2 (run_world pre (init_world2 n p)) (OAddItems i l r rule eid)).1.1)) i) !! e
        = Some (Rxn (norm_rule rule) (normalize_items l) (normalize_items r))).
Proof.
  set (w := run_world pre (init_world2 n p)). intros Hi.
  assert (Hw : Forall Inv (nets w)) by (apply run2_Inv; cbn; apply init_world_Inv).
  assert (Hlen : length (nets w) = n).
  { unfold w. rewrite run_world_length. cbn. apply replicate_length. }
  pose proof (step2_Inv w (OAddItems i l r rule eid) Hw) as Hw'. revert Hw'.
  cbn [step2]. destruct (add _ _ _ _ _) as [[s' er] e] eqn:Ha. cbn [fst snd]. intros Hw' ->.
  apply add_stores in Ha as (H1 & H2 & H3). exists e. split_and!; [done..|].
  intros Hpost. apply run2_stored_kept; [done| |done].
  cbn [nets setnets]. rewrite getn_setn_eq by lia. done.
Qed.

(** non-vacuity: a successful add and a continuation that does not name it *)
Example C15_ext_history_nonvacuous :
  (step2 (run_world [] (init_world2 2 2)) (OAddItems 0 [IPair "A" 1] [ILabel "B"] "" None)).1.2 = None ∧
  Forall (λ o, ¬ may_drop2 o 0 "r_1" (Rxn "r" {[ "A" := 1%positive ]} {[ "B" := 1%positive ]}))
         [OPoolNew 0 []; OQuery 0 QLen; OBase (ORemoveRxn 0 "zz"); OBase (ORemoveSpecies 0 "C" true); OSideSet 1 "r_1" true "A" 3].
Proof.
  split; [vm_compute; reflexivity|]. repeat constructor; cbn; try tauto.
  - intros [_ ?]; done.
  - intros [_ H]. revert H. apply (bool_decide_unpack _). vm_compute. exact Logic.I.
  - intros [? _]; done.
Qed.
