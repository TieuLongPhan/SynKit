(** C20 — call histories on one object: a run lists, call by call, what the step function returns from the state the
    calls before it have led to. *)
From Coq Require Import List.
Import ListNotations.

Section Run.
Context {St Op A B : Type} (step : St -> Op -> St * A) (out : St * A -> B).

Fixpoint run (st : St) (ops : list Op) : list B :=
  match ops with
  | [] => []
  | op :: ops' => out (step st op) :: run (fst (step st op)) ops'
  end.

Definition exec (st : St) (ops : list Op) : St := fold_left (fun s op => fst (step s op)) ops st.

Lemma run_nth ops1 : forall st op ops2,
  nth_error (run st (ops1 ++ op :: ops2)) (length ops1) = Some (out (step (exec st ops1) op)).
Proof. induction ops1 as [|o ops1 IH]; intros st op ops2; simpl; [reflexivity|apply IH]. Qed.
End Run.
