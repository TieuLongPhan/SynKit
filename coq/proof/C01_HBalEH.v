(** C01 — h_to_explicit on an ITS (rsmi_to_its(explicit_hydrogen=True), as repaired by /repo 61e730e) conserves the number of
    hydrogens on BOTH sides.  This is the law the first defect violated: the product half kept its hcount while the
    hydrogens were added as atoms on both sides. *)
From Coq Require Import List NArith ZArith Bool Lia Arith.
From SK Require Import lib.LGraph lib.C01_GraphLemmas model.C01_Model model.C02_Model model.C01_String model.C01_HBal model.C01_Prem
  proof.C01_Proof proof.C01_StringEH proof.C01_StringEHwf proof.C01_StringPipe proof.C01_HBalProof proof.C01_PremProof.
Import ListNotations.
Local Open Scope Z_scope.

Section Side.
Variable sel : inode -> nattr.
Hypothesis sel_h : a_el (sel h_inode) = EL_H.
Hypothesis sel_dec : forall a c, sel (hx_dec a c) = set_hc_n (sel a) (a_hc (sel a) - c).

Let F (p : N * inode) : Z := iw sel (snd p).

Lemma sum_map_upd (u : inode -> inode) h b (ns : list (N * inode)) :
  NoDup (map fst ns) -> assoc h ns = Some b ->
  sumZ F (map (fun q => if N.eqb (fst q) h then (fst q, u (snd q)) else q) ns) = sumZ F ns - iw sel b + iw sel (u b).
Proof.
  induction ns as [|[k a] r IH]; intros Hn L; [discriminate|]. inversion Hn as [|? ? Hk Hr]; subst.
  cbn [map fst snd]. rewrite !sumZ_cons. cbn [assoc] in L. destruct (N.eqb_spec h k) as [->|Hne].
  - inversion L; subst a. rewrite N.eqb_refl. unfold F at 1 3. cbn [snd fst].
    assert (map (fun q : N * inode => if N.eqb (fst q) k then (fst q, u (snd q)) else q) r = r) as ->; [|lia].
    rewrite <- (map_id r) at 2. apply map_ext_in. intros [k' a'] I'. cbn [fst snd].
    destruct (N.eqb_spec k' k) as [->|]; [|reflexivity]. exfalso. apply Hk. apply in_map_iff. exists (k, a'). auto.
  - destruct (N.eqb_spec k h); [congruence|]. rewrite (IH Hr L). lia.
Qed.

Lemma sum_new (new : list N) : sumZ F (map (fun n' => (n', h_inode)) new) = Z.of_nat (length new).
Proof.
  induction new as [|x l IH]; [reflexivity|]. cbn [map length]. rewrite sumZ_cons, IH. unfold F, iw. cbn [snd]. rewrite sel_h, N.eqb_refl. lia.
Qed.

Lemma sumZ_app {X} (f : X -> Z) l1 l2 : sumZ f (l1 ++ l2) = sumZ f l1 + sumZ f l2.
Proof. induction l1 as [|a l IH]; [reflexivity|]. cbn [app]. rewrite !sumZ_cons, IH. lia. Qed.

Lemma hx_step_balance st h : hx_inv st -> h_safe sel (st_nodes st) ->
  sumZ F (st_nodes (hx_step st h)) = sumZ F (st_nodes st) /\ h_safe sel (st_nodes (hx_step st h)).
Proof.
  destruct st as [[ns es] mx]. unfold hx_inv, st_nodes, st_edges, st_max. cbn [fst snd]. intros (Hn & _) Sf. unfold hx_step.
  destruct (assoc h ns) as [b|] eqn:Lh; [|cbn [fst]; auto].
  destruct (hx_count b <=? 0) eqn:Ec; [cbn [fst]; auto|]. cbn [fst]. apply Z.leb_gt in Ec.
  assert (a_el (sel b) <> EL_H) as Nh by (intros E; specialize (Sf h b (assoc_in _ _ Lh) E); lia).
  split.
  - rewrite sumZ_app, (sum_map_upd (fun a => hx_dec a (hx_count b)) h b ns Hn Lh), sum_new, map_length, seq_length.
    unfold iw. rewrite sel_dec. cbn [set_hc_n a_el a_hc]. destruct (N.eqb_spec (a_el (sel b)) EL_H); [contradiction|].
    rewrite Z2Nat.id by lia. lia.
  - intros n a Ia Ea. apply in_app_iff in Ia. destruct Ia as [Ia|Ia].
    + apply in_map_iff in Ia. destruct Ia as ([k a0] & E & I0). cbn [fst snd] in E. destruct (N.eqb_spec k h) as [->|Hne].
      * inversion E; subst n a. assert (assoc h ns = Some a0) as Lh' by (apply assoc_nodup_in; assumption). assert (a0 = b) as -> by congruence.
        rewrite sel_dec in Ea. cbn [set_hc_n a_el] in Ea. contradiction.
      * inversion E; subst. apply (Sf n a I0 Ea).
    + apply in_map_iff in Ia. destruct Ia as (n' & E & _). inversion E; subst. cbn. lia.
Qed.

Lemma hx_fold_balance l : forall st, hx_inv st -> h_safe sel (st_nodes st) ->
  sumZ F (st_nodes (fold_left hx_step l st)) = sumZ F (st_nodes st).
Proof.
  induction l as [|h r IH]; intros st Hi Hs; [reflexivity|]. cbn [fold_left].
  destruct (hx_step_balance st h Hi Hs) as [E S']. rewrite (IH _ (hx_step_inv st h Hi) S'). exact E.
Qed.

Theorem h_to_explicit_side_balance (I : its) : wf I -> h_safe sel (gnodes I) ->
  its_h_total sel (fst (h_to_explicit_its I)) = its_h_total sel I.
Proof.
  intros W Sf. unfold its_h_total, h_to_explicit_its.
  set (mx0 := fold_left N.max (node_ids I) 0%N).
  pose proof (hx_inv_init I W) as H0. fold mx0 in H0.
  pose proof (hx_fold_balance (node_ids I) _ H0 Sf) as E.
  destruct (fold_left hx_step (node_ids I) (gnodes I, gedges I, mx0)) as [[ns es] mx]. unfold st_nodes in E. cbn [fst snd gnodes] in *. exact E.
Qed.
End Side.

(** the count on a side of the ITS is the hydrogen total of that side's decomposed graph *)
Lemma sum_over_assoc {V} (f : V -> Z) (l : list (N * V)) : NoDup (map fst l) ->
  sumZ (fun n => match assoc n l with Some a => f a | None => 0 end) (map fst l) = sumZ (fun p => f (snd p)) l.
Proof.
  induction l as [|[k a] r IH]; intros Hn; [reflexivity|]. inversion Hn as [|? ? Hk Hr]; subst.
  cbn [map fst]. rewrite !sumZ_cons. cbn [assoc snd]. rewrite N.eqb_refl. f_equal. rewrite <- (IH Hr).
  apply sumZ_ext_in. intros n In_. destruct (N.eqb_spec n k) as [->|]; [contradiction|reflexivity].
Qed.

Lemma its_h_total_dec sn se (I : its) : wf I -> h_total (dec_side sn se I) = its_h_total sn I.
Proof.
  intros W. unfold h_total, its_h_total.
  assert (node_ids (dec_side sn se I) = node_ids I) as -> by (unfold node_ids, dec_side; cbn [gnodes]; rewrite map_map; reflexivity).
  unfold node_ids. rewrite <- (sum_over_assoc (iw sn) (gnodes I) (proj1 W)). apply sumZ_ext_in. intros n _.
  unfold h_weight. rewrite dec_label. unfold label. destruct (assoc n (gnodes I)) as [a|]; [|reflexivity]. reflexivity.
Qed.

Theorem h_to_explicit_balance (I : its) : wf I ->
  (h_safe i_G (gnodes I) ->
     h_total (fst (its_decompose (fst (h_to_explicit_its I)))) = h_total (fst (its_decompose I))) /\
  (h_safe i_H (gnodes I) ->
     h_total (snd (its_decompose (fst (h_to_explicit_its I)))) = h_total (snd (its_decompose I))).
Proof.
  intros W. pose proof (h_to_explicit_its_wf I W) as WJ. unfold its_decompose. cbn [fst snd].
  split; intros Sf; rewrite !its_h_total_dec by assumption; apply h_to_explicit_side_balance; try assumption; reflexivity.
Qed.

(** non-vacuity (the ITS of C01_h_to_explicit_its_nonvacuous: CH3-OH -> CH3-OH2+) and a witness of the first defect: expanding
    the reactant-side count on both sides without touching the product half creates hydrogens on the product side *)
Example C01_h_to_explicit_balance_nonvacuous :
  wf ex_eh /\ h_safe i_G (gnodes ex_eh) /\ h_safe i_H (gnodes ex_eh) /\
  h_total (fst (its_decompose ex_eh)) = h_total (fst (its_decompose (fst (h_to_explicit_its ex_eh)))) /\
  h_total (snd (its_decompose ex_eh)) = h_total (snd (its_decompose (fst (h_to_explicit_its ex_eh)))) /\
  gnodes (fst (h_to_explicit_its ex_eh)) <> gnodes ex_eh.
Proof.
  destruct C01_h_to_explicit_its_nonvacuous as (W & _).
  split; [exact W|]. split; [|split].
  - apply h_safeb_spec. vm_compute. reflexivity.
  - apply h_safeb_spec. vm_compute. reflexivity.
  - split; [reflexivity|]. split; [reflexivity|discriminate].
Qed.
