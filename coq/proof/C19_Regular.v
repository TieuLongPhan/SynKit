(** C19 — check_regularity and the deficiency-zero / deficiency-one front ends of model/C19_Model.v.
    regular = every linkage class has exactly one terminal strongly connected component: a terminal complex exists in the
    class and any two terminal complexes of the class reach each other.  Style: stdlib lists. *)
From Coq Require Import List NArith ZArith Bool Arith Lia.
From SK Require Import lib.Reach model.C17_Model model.C19_Model proof.C19_Complexes proof.C19_Linkage.
Import ListNotations.
Local Open Scope nat_scope.

(** a complex is terminal when everything it reaches leads back to it (its strongly connected component has no way out) *)
Definition terminal (arcs : list (nat * nat)) (v : nat) : Prop := forall w, dpath arcs v w -> dpath arcs w v.

Lemma terminal_scc arcs v w : terminal arcs v -> dpath arcs v w -> terminal arcs w.
Proof.
  intros T P x Px. assert (dpath arcs v x) by (eapply dpath_trans; eauto).
  eapply dpath_trans; [apply T; assumption | exact P].
Qed.

Lemma find_ext_in {A} (f g : A -> bool) l : (forall x, In x l -> f x = g x) -> find f l = find g l.
Proof.
  induction l as [|a l IH]; intros H; simpl; auto. rewrite (H a (or_introl eq_refl)).
  destruct (g a); auto. apply IH. intros x I. apply H. right. exact I.
Qed.

Lemma NoDup_length_1 {A} (l : list A) : NoDup l ->
  (length l = 1 <-> (exists x, In x l) /\ forall x y, In x l -> In y l -> x = y).
Proof.
  intros ND. destruct l as [|a [|b l]]; simpl.
  - split; [discriminate|intros [[x []] _]].
  - split; [intros _|reflexivity]. split; [exists a; auto|intros x y [<-|[]] [<-|[]]; reflexivity].
  - split; [discriminate|]. intros [_ H]. inversion ND as [|? ? Hn _]; subst. destruct Hn. rewrite (H a b); simpl; auto.
Qed.

Section Graph.
Variable arcs : list (nat * nat).
Variable k : nat.
Hypothesis OK : arcs_ok arcs k.

Lemma dpath_lt u w : u < k -> dpath arcs u w -> w < k.
Proof. intros Hu P. eapply upath_lt; eauto. apply dpath_upath. exact P. Qed.

Lemma scc_in v x : v < k -> (In x (scc arcs k (nn v)) <-> exists w, x = nn w /\ dpath arcs v w /\ dpath arcs w v).
Proof.
  intros Hv. unfold scc. rewrite filter_In, (closure_succs arcs k OK v Hv). split.
  - intros ((w & -> & P) & M). apply mem_spec in M. apply (closure_preds arcs k OK v Hv) in M.
    destruct M as (w' & E & P'). apply nn_inj in E. subst w'. eauto.
  - intros (w & -> & P & P'). split; [eauto|]. apply mem_spec. apply (closure_preds arcs k OK v Hv). eauto.
Qed.

Lemma scc_mem_ext v w : v < k -> dpath arcs v w -> dpath arcs w v ->
  forall x, mem x (scc arcs k (nn v)) = mem x (scc arcs k (nn w)).
Proof.
  intros Hv P P' x. assert (Hw : w < k) by (eapply dpath_lt; eauto).
  apply mem_iff. rewrite (scc_in v x Hv), (scc_in w x Hw).
  split; intros (y & -> & Q & Q'); exists y; (split; [reflexivity|]); split; eapply dpath_trans; eauto.
Qed.

Lemma is_terminal_spec v : v < k -> (is_terminal arcs k (nn v) = true <-> terminal arcs v).
Proof.
  intros Hv. unfold is_terminal. rewrite subset_spec. split.
  - intros H w P. assert (I : In (nn w) (closure (succs arcs) k (nn v))) by (apply (closure_succs arcs k OK v Hv); eauto).
    apply H in I. apply (closure_preds arcs k OK v Hv) in I. destruct I as (w' & E & P'). apply nn_inj in E. subst. exact P'.
  - intros T x I. apply (closure_succs arcs k OK v Hv) in I. destruct I as (w & -> & P).
    apply (closure_preds arcs k OK v Hv). exists w. split; auto.
Qed.

(** the representative (first member in the class list) of the strongly connected component of v *)
Lemma rep_exists c v : (forall y, In y c -> exists i, i < k /\ y = nn i) -> In (nn v) c -> v < k ->
  exists x, x < k /\ In (nn x) c /\ dpath arcs v x /\ dpath arcs x v /\ is_rep arcs k c (nn x) = true.
Proof.
  intros MEM I Hv.
  destruct (find (fun y => mem y (scc arcs k (nn v))) c) as [y|] eqn:F.
  - destruct (find_some _ _ F) as (Iy & My). apply mem_spec in My. apply (scc_in v y Hv) in My.
    destruct My as (x & -> & P & P'). assert (Hx : x < k) by (eapply dpath_lt; eauto).
    exists x. split; auto. split; auto. split; auto. split; auto.
    unfold is_rep. rewrite <- (find_ext_in (fun y => mem y (scc arcs k (nn v)))) by (intros; apply scc_mem_ext; auto).
    rewrite F. apply N.eqb_refl.
  - exfalso. pose proof (find_none _ _ F _ I) as N0. simpl in N0.
    assert (In (nn v) (scc arcs k (nn v))) as X by (apply (scc_in v _ Hv); exists v; repeat split; constructor).
    apply mem_spec in X. congruence.
Qed.

Lemma rep_unique c x y : x < k -> dpath arcs x y -> dpath arcs y x ->
  is_rep arcs k c (nn x) = true -> is_rep arcs k c (nn y) = true -> x = y.
Proof.
  intros Hx P P' Rx Ry. unfold is_rep in *.
  rewrite <- (find_ext_in (fun z => mem z (scc arcs k (nn x)))) in Ry by (intros; apply scc_mem_ext; auto).
  destruct (find (fun z => mem z (scc arcs k (nn x))) c) as [z|]; [|discriminate].
  apply N.eqb_eq in Rx, Ry. apply nn_inj. congruence.
Qed.

Theorem terminal_count_spec c : In c (linkage_classes arcs k) ->
  (terminal_count arcs k c = 1 <->
   (exists v, In (nn v) c /\ terminal arcs v) /\
   (forall v w, In (nn v) c -> In (nn w) c -> terminal arcs v -> terminal arcs w -> dpath arcs v w)).
Proof.
  intros Ic. pose proof (class_members arcs k OK c Ic) as MEM.
  destruct (linkage_spec arcs k OK) as (_ & _ & Q3 & _). destruct (Q3 c Ic) as (NDc & _).
  unfold terminal_count.
  remember (filter (fun v => is_rep arcs k c v && is_terminal arcs k v) c) as T eqn:HT.
  assert (Tspec : forall x, In (nn x) T <-> In (nn x) c /\ is_rep arcs k c (nn x) = true /\ is_terminal arcs k (nn x) = true).
  { intros x. rewrite HT, filter_In, andb_true_iff. tauto. }
  assert (Tnn : forall y, In y T -> exists x, x < k /\ y = nn x).
  { intros y I. apply MEM. rewrite HT in I. apply filter_In in I. tauto. }
  assert (lift : forall v, In (nn v) c -> terminal arcs v -> exists x, In (nn x) T /\ dpath arcs v x /\ dpath arcs x v).
  { intros v I Tv. destruct (MEM _ I) as (v' & Hv & E). apply nn_inj in E. subst v'.
    destruct (rep_exists c v MEM I Hv) as (x & Hx & Ix & P & P' & R). exists x. split; auto.
    apply Tspec. split; auto. split; auto. apply is_terminal_spec; auto. eapply terminal_scc; eauto. }
  rewrite (NoDup_length_1 T) by (rewrite HT; apply NoDup_filter; exact NDc). split.
  - intros ((t & It) & U). destruct (Tnn t It) as (t0 & Ht0 & ->). split.
    + exists t0. apply Tspec in It. destruct It as (I & _ & Tm). split; auto. apply is_terminal_spec; auto.
    + intros v w Iv Iw Tv Tw.
      destruct (lift v Iv Tv) as (x & Ix & P & _). destruct (lift w Iw Tw) as (y & Iy & _ & Q').
      rewrite (nn_inj _ _ (U _ _ Ix Iy)) in P. eapply dpath_trans; eauto.
  - intros ((v & Iv & Tv) & U). split.
    + destruct (lift v Iv Tv) as (x & Ix & _). exists (nn x). exact Ix.
    + intros a b Ia Ib. destruct (Tnn a Ia) as (a0 & Ha & ->). destruct (Tnn b Ib) as (b0 & Hb & ->).
      apply Tspec in Ia, Ib. destruct Ia as (Ia & Ra & Ta). destruct Ib as (Ib & Rb & Tb).
      apply is_terminal_spec in Ta, Tb; auto. f_equal. apply (rep_unique c a0 b0 Ha); auto.
Qed.

Theorem regular_spec :
  regular arcs k = true <->
  forall c, In c (linkage_classes arcs k) ->
    (exists v, In (nn v) c /\ terminal arcs v) /\
    (forall v w, In (nn v) c -> In (nn w) c -> terminal arcs v -> terminal arcs w -> dpath arcs v w).
Proof.
  unfold regular. rewrite forallb_forall. split.
  - intros H c Ic. apply terminal_count_spec; auto. apply Nat.eqb_eq. apply H. exact Ic.
  - intros H c Ic. apply Nat.eqb_eq. apply terminal_count_spec; auto.
Qed.
End Graph.

(* ------------------------------------------------------------------ the model's network and the front ends *)

Theorem net_regular net iso :
  let arcs := snd (complex_graph net iso) in
  let k := length (fst (complex_graph net iso)) in
  regular arcs k = true <->
  forall c, In c (linkage_classes arcs k) ->
    (exists v, In (nn v) c /\ terminal arcs v) /\
    (forall v w, In (nn v) c -> In (nn w) c -> terminal arcs v -> terminal arcs w -> dpath arcs v w).
Proof. intros arcs k. apply regular_spec. apply complex_graph_arcs_ok. Qed.

Theorem net_deficiency_zero net iso r :
  let arcs := snd (complex_graph net iso) in
  let s := compute_summary net iso r in
  check_deficiency_zero s = true <-> deficiency s = 0%Z /\ forall u v, In (u, v) arcs -> dpath arcs v u.
Proof.
  intros arcs s. unfold check_deficiency_zero. rewrite andb_true_iff, Z.eqb_eq.
  destruct (net_weak_rev net iso r) as (_ & W). fold arcs s in W. rewrite W. reflexivity.
Qed.

Lemma forallb_leb ld : forallb (fun d => Z.leb d 1) ld = true <-> Forall (fun d => (d <= 1)%Z) ld.
Proof. rewrite forallb_forall, Forall_forall. split; intros H d I; apply Z.leb_le, H, I. Qed.

Theorem deficiency_one_spec (s : summary) (ld : list Z) :
  check_deficiency_one s ld = true <->
  deficiency s = 1%Z /\ length ld = n_linkage s /\ Forall (fun d => (d <= 1)%Z) ld /\ zsum ld = 1%Z.
Proof.
  unfold check_deficiency_one. rewrite !andb_true_iff, !Z.eqb_eq, Nat.eqb_eq, forallb_leb. tauto.
Qed.

Theorem deficiency_one_hypotheses_spec (s : summary) (ld : list Z) (reg : bool) :
  deficiency_one_hypotheses s ld reg = true <->
  deficiency s = 1%Z /\ zsum ld = 1%Z /\ ld <> [] /\ Forall (fun d => (d <= 1)%Z) ld /\ reg = true.
Proof.
  unfold deficiency_one_hypotheses. rewrite !andb_true_iff, !Z.eqb_eq, forallb_leb, negb_true_iff, Nat.eqb_neq.
  assert (length ld <> 0 <-> ld <> []) as E by (destruct ld; simpl; split; intros H; congruence).
  rewrite E. tauto.
Qed.

(* non-vacuity: A+B<->C, C->2A is regular (one terminal component {2A}); a fork 0->1, 0->2 is not (two terminal complexes);
   the reversible pair alone passes the deficiency-zero front end *)
Example ex_regular :
  regular ex_arcs 3 = true /\ regular [(0, 1); (0, 2)] 3 = false /\ terminal ex_arcs 2 /\ ~ terminal ex_arcs 0 /\
  check_deficiency_zero (compute_summary ex_rev [] 1) = true /\
  check_deficiency_one (Summary 1 2 3 1 1 1 false) [1%Z] = true.
Proof.
  split; [vm_compute; reflexivity|]. split; [vm_compute; reflexivity|].
  split; [intros w P; rewrite (dpath_sink _ _ _ ex_sink_2 P); constructor|].
  split.
  - intros T. pose proof (dpath_sink _ _ _ ex_sink_2 (T 2 ex_path_0_2)) as E. discriminate.
  - split; vm_compute; reflexivity.
Qed.

(* ------------------------------------------------------------------ two answers of the analyzer that cannot disagree *)

(** weak reversibility implies the coarse regularity: in a strongly connected class every complex is terminal and any two
    complexes reach each other, so the class has exactly one terminal strongly connected component.  (CRNT: a weakly reversible
    network is regular.)  The converse fails: A -> B is regular and not weakly reversible. *)
Theorem weak_rev_regular arcs k : arcs_ok arcs k -> weakly_reversible arcs k = true -> regular arcs k = true.
Proof.
  intros OK W. pose proof (proj1 (weak_rev_arcs arcs k OK) W) as R. pose proof (proj1 (weak_rev_spec arcs k OK) W) as S.
  apply (regular_spec arcs k OK). intros c Ic. split.
  - destruct (linkage_spec arcs k OK) as (_ & _ & Q3 & _). destruct (Q3 c Ic) as [_ NE].
    destruct c as [|y c']; [congruence|]. destruct (class_members arcs k OK (y :: c') Ic y (or_introl eq_refl)) as (i & _ & ->).
    exists i. split; [left; reflexivity|]. intros w P. apply (return_paths_upath arcs R). apply upath_sym, dpath_upath. exact P.
  - intros v w Iv Iw _ _. apply (S c Ic v w Iv Iw).
Qed.

Theorem net_weak_rev_regular net iso r :
  let arcs := snd (complex_graph net iso) in
  let k := length (fst (complex_graph net iso)) in
  (weakly_rev (compute_summary net iso r) = true -> regular arcs k = true) /\
  (check_deficiency_zero (compute_summary net iso r) = true -> regular arcs k = true).
Proof.
  intros arcs k. pose proof (complex_graph_arcs_ok net iso) as OK. fold arcs k in OK.
  assert (A : weakly_rev (compute_summary net iso r) = true -> regular arcs k = true).
  { rewrite compute_summary_eq. simpl. fold arcs k. apply weak_rev_regular. exact OK. }
  split; [exact A|]. unfold check_deficiency_zero. rewrite andb_true_iff. intros [_ W]. apply A. exact W.
Qed.

Example ex_regular_not_weak_rev : regular [(0, 1)] 2 = true /\ weakly_reversible [(0, 1)] 2 = false /\
  regular [(0, 1); (1, 0)] 2 = true /\ weakly_reversible [(0, 1); (1, 0)] 2 = true.
Proof. repeat apply conj; vm_compute; reflexivity. Qed.
