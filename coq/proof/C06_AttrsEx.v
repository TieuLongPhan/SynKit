(** C06 — non-vacuity examples for the attribute-selection theorems (section 6 of props/C06.v). *)
From Coq Require Import List NArith Bool Arith Lia Permutation SetoidList.
From SK Require Import lib.LGraph lib.Mono model.C06_Model model.C06_Attrs lib.C06_Spec lib.C06_SelSpec
  proof.C06_All proof.C06_Attrs proof.C06_AttrsSpec.
Import ListNotations.
Local Open Scope N_scope.

(** names: 1 element, 2 charge, 3 hcount, 4 order, 5 aromatic; values: 1 "C", 2 "O", 3 = 0 (charge), 4 = 1 (order),
    5 = 2 (order), 6 = 1 (hcount), 7 True.
    host: ethanol-like C1(H1)-C2-O3(H1) with a double bond variant edge, plus an isolated O4; pattern: C-O *)
Definition Hr : rgraph :=
  LG [ (1, ([(1, 1); (2, 3); (3, 6)], Some 1)); (2, ([(1, 1); (2, 3)], None));
       (3, ([(1, 2); (2, 3); (3, 6); (5, 7)], Some 1)); (4, ([(1, 2)], None)) ]
     [ (1, 2, [(4, 4)]); (2, 3, [(4, 5)]) ].
Definition Pr : rgraph :=
  LG [ (10, ([(1, 1); (2, 3)], None)); (11, ([(1, 2); (2, 3)], Some 1)) ]
     [ (10, 11, [(4, 4)]) ].

Lemma Hr_wf : rgwf Hr.
Proof.
  split; [apply nodupb_spec; reflexivity|].
  intros a b x [E|[E|[]]]; inversion E; subst; simpl; repeat split; auto; discriminate.
Qed.
Lemma Pr_wf : rgwf Pr.
Proof.
  split; [apply nodupb_spec; reflexivity|].
  intros a b x [E|[]]; inversion E; subst; simpl; repeat split; auto; discriminate.
Qed.

(** C06_sel_closures is not vacuous: both verdicts occur *)
Example ex_closure_true : node_match_sel [1; 2] (rlab Hr 3) (rlab Pr 11) = true.
Proof. vm_compute. reflexivity. Qed.
Example ex_closure_false_hcount : node_match_sel [1; 2] (rlab Hr 4) (rlab Pr 11) = false.
Proof. vm_compute. reflexivity. Qed.
Example ex_closure_absent_is_none : node_match_sel [1; 2] (rlab Hr 4) (rlab Pr 10) = false
                                    /\ node_match_sel [5] (rlab Hr 4) (rlab Pr 10) = true.
Proof. vm_compute. split; reflexivity. Qed.

(** with the bond order selected the pattern C-O (order 1) does not fit C2=O3; without it, one match *)
Definition R_order := find_sel (monos_sel [1; 2] [4] Hr Pr) (Cfg 0 0 5000 true false) [1; 2] [4] Hr Pr.
Definition R_skel := find_sel (monos_sel [1; 2] [] Hr Pr) (Cfg 0 0 5000 true false) [1; 2] [] Hr Pr.
Example ex_sel_values : R_order = [] /\ R_skel = [[(11, 3); (10, 2)]].
Proof. vm_compute. split; reflexivity. Qed.

(** premises of C06_sel_all_exact / C06_sel_refines hold for this pair, conclusions are not trivial *)
Example ex_sel_all_exact :
  (forall m, In m R_skel -> is_mono_sel [1; 2] [] Hr Pr m) /\
  (forall m, is_mono_sel [1; 2] [] Hr Pr m -> exists m', In m' R_skel /\ Permutation m m') /\
  NoDupA (@Permutation (N * N)) R_skel.
Proof. apply (sel_all_exact [1; 2] [] 5000 true Hr Pr Hr_wf Pr_wf). vm_compute. discriminate. Qed.

Example ex_sel_refines : forall m, In m R_order -> exists m', In m' R_skel /\ Permutation m m'.
Proof.
  apply (sel_refines [1; 2] [1; 2] [] [4] 5000 5000 true true Hr Pr Hr_wf Pr_wf).
  - apply incl_refl.
  - intros x [].
  - vm_compute. discriminate.
  - vm_compute. discriminate.
Qed.

(** C06_sel_same_members: permuted selection with repetitions, limits and the pre-filter on *)
Example ex_sel_same_members :
  find_sel (monos_sel [2; 1; 2] [] Hr Pr) (Cfg 2 1 3 false true) [2; 1; 2] [] Hr Pr =
  find_sel (monos_sel [1; 2] [] Hr Pr) (Cfg 2 1 3 false true) [1; 2] [] Hr Pr
  /\ find_sel (monos_sel [1; 2] [] Hr Pr) (Cfg 2 1 3 false true) [1; 2] [] Hr Pr = [[(11, 3); (10, 2)]].
Proof.
  split.
  - apply sel_same_members; intros x Hx; simpl in *; intuition.
  - vm_compute. reflexivity.
Qed.

(** C06_sel_projection / C06_enum_calls_inside: the two sides are the same non-empty list here *)
Example ex_sel_projection :
  monos_sel [1] [] Hr Pr (node_ids Hr) (node_ids Pr) = monos_on (project [1] [] Hr) (project [1] [] Pr) (node_ids Hr) (node_ids Pr)
  /\ length (monos_sel [1] [] Hr Pr (node_ids Hr) (node_ids Pr)) = 1%nat
  /\ quick_pre_filter_sel [1; 2] Hr Pr 5000 = false.
Proof. vm_compute. repeat split; reflexivity. Qed.
