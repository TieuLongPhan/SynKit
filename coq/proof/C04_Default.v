(** C04 — default (explicit-hydrogen) mode: what h_to_implicit does to a substrate graph ([folded_to]); a rule whose
    atoms are the non-hydrogen atoms of a template describing (A, B), with hydrogen counts = number of bonds to the
    template's hydrogen atoms on each side, describes the pair of implicit-hydrogen forms (h_to_implicit A, h_to_implicit B). *)
From Coq Require Import List NArith ZArith Bool Lia Permutation.
From SK Require Import lib.LGraph model.C03_Model model.C04_Model proof.C03_Proof proof.C03_Glue proof.C03_Backward proof.C03_Skeleton
                       proof.C03_StripCounts proof.C03_StripExact proof.C04_Glue proof.C04_Template.
Import ListNotations.
Local Open Scope Z_scope.

(** * h_to_implicit on a substrate graph whose every hydrogen atom is bonded to non-hydrogen atoms only:
      the hydrogen atoms disappear, every other atom's count grows by the number of its bonds to them, the bonds between
      the remaining atoms stay *)
Definition bumpk (k : Z) (a : nattr) : nattr := set_hc a (a_hc a + k).
Definition hkeepn (R : list N) (p : N * nattr) : bool := negb (mem (fst p) R).

Lemma occ_nbrs_host (g : hostg) h x : x <> h -> occ x (nbrs g h) = cnt (gedges g) h x.
Proof. intros Hne. exact (occ_nbrs (LG [] (gedges g)) h x Hne). Qed.

(** the inner fold: one more hydrogen on every listed atom, once per occurrence *)
Lemma bump_fold_nodes xs : forall g : hostg,
  gnodes (fold_left (fun g'' x => upd_node g'' x (fun a => set_hc a (a_hc a + 1))) xs g)
  = map (fun p => (fst p, bumpk (occ (fst p) xs) (snd p))) (gnodes g) /\
  gedges (fold_left (fun g'' x => upd_node g'' x (fun a => set_hc a (a_hc a + 1))) xs g) = gedges g.
Proof.
  induction xs as [|x r IH]; intros g; cbn [fold_left].
  - split; [|reflexivity]. rewrite <- (map_id (gnodes g)) at 1. apply map_ext. intros [k a]. unfold bumpk, occ; simpl.
    rewrite Z.add_0_r. destruct a; reflexivity.
  - destruct (IH (upd_node g x (fun a => set_hc a (a_hc a + 1)))) as [E1 E2]. rewrite E1, E2. split; [|reflexivity].
    unfold upd_node; cbn [gnodes]. rewrite map_map. apply map_ext. intros [k a]. cbn [fst snd]. rewrite occ_cons.
    destruct (N.eqb_spec k x) as [->|Hne]; cbn [fst snd].
    + destruct a as [e ar hc ch nb]. unfold bumpk, set_hc; simpl. replace (hc + 1 + occ x r) with (hc + (1 + occ x r)) by lia. reflexivity.
    + destruct a as [e ar hc ch nb]. unfold bumpk, set_hc; simpl. reflexivity.
Qed.

Lemma filter_all {X} (f : X -> bool) (l : list X) : (forall x, In x l -> f x = true) -> filter f l = l.
Proof. induction l as [|y r IH]; simpl; [reflexivity|]. intros H. rewrite (H y) by auto. f_equal. apply IH. auto. Qed.

Lemma hkeepn_cons h R p : hkeepn (h :: R) p = negb (N.eqb (fst p) h) && hkeepn R p.
Proof. unfold hkeepn, mem. simpl. rewrite negb_orb. reflexivity. Qed.
Lemma filter_map_fst {X} (F : N * X -> N * X) (c : N -> bool) (l : list (N * X)) : (forall p, fst (F p) = fst p) ->
  filter (fun p => c (fst p)) (map F l) = map F (filter (fun p => c (fst p)) l).
Proof.
  intros HF. induction l as [|p r IH]; simpl; [reflexivity|]. rewrite HF. destruct (c (fst p)); simpl; rewrite IH; reflexivity.
Qed.

Section Fold.
  Variable g : hostg.
  Hypothesis Hnd : NoDup (node_ids g).
  (** every hydrogen atom has at least one neighbour and all its neighbours are non-hydrogen atoms of the graph *)
  Hypothesis Hh : forall h, is_H_h g h = true -> nbrs g h <> [] /\ forall x, In x (nbrs g h) -> is_H_h g x = false /\ has_node g x = true.

  Definition hsum (R : list N) (n : N) : Z := sum_cnt (gedges g) R n.

  (** the state after the hydrogen atoms [R] have been folded *)
  Definition folded_to (R : list N) (g' : hostg) : Prop :=
    gnodes g' = map (fun p => (fst p, bumpk (hsum R (fst p)) (snd p))) (filter (hkeepn R) (gnodes g)) /\
    gedges g' = filter (mkeepe R) (gedges g).

  Lemma folded_label R g' n : folded_to R g' -> ~ In n R -> label g' n = option_map (bumpk (hsum R n)) (label g n).
  Proof.
    intros [F1 _] NI. unfold label. rewrite F1. clear F1.
    pose proof (mem_false n R NI) as Hm.
    induction (gnodes g) as [|[k a] r IH]; [reflexivity|]. cbn [filter]. unfold hkeepn at 1. cbn [fst].
    destruct (N.eqb_spec n k) as [->|Hne].
    - rewrite Hm. cbn [negb map assoc fst snd]. rewrite N.eqb_refl. reflexivity.
    - destruct (negb (mem k R)); cbn [map assoc fst snd].
      + destruct (N.eqb_spec n k); [contradiction|]. exact IH.
      + cbn [assoc]. destruct (N.eqb_spec n k); [contradiction|]. exact IH.
  Qed.

  Definition hstep (g' : hostg) (h : N) : hostg :=
    match filter (fun x => negb (is_H_h g' x)) (nbrs g' h) with
    | [] => g'
    | heavy => remove_node (fold_left (fun g'' x => upd_node g'' x (fun a => set_hc a (a_hc a + 1))) heavy g') h
    end.

  Lemma fold_step R g' h : folded_to R g' -> (forall x, In x R -> is_H_h g x = true) -> ~ In h R -> is_H_h g h = true ->
    folded_to (h :: R) (hstep g' h).
  Proof.
    intros F HR NI HH. unfold hstep. pose proof F as [F1 F2]. destruct (Hh h HH) as [Hne Hx].
    (* the neighbours of h are untouched so far *)
    assert (En : nbrs g' h = nbrs g h).
    { unfold nbrs. rewrite F2, (nbrs_filtered (gedges g) R h NI). fold (nbrs g h).
      rewrite filter_all; [reflexivity|]. intros x I.
      destruct (mem x R) eqn:E; [|reflexivity]. apply mem_spec in E. destruct (Hx x I) as [H1 _]. rewrite (HR x E) in H1. discriminate. }
    assert (Ef : filter (fun x => negb (is_H_h g' x)) (nbrs g' h) = nbrs g h).
    { rewrite En. apply filter_all. intros x I. destruct (Hx x I) as [H1 H2].
      assert (NIx : ~ In x R) by (intros E; rewrite (HR x E) in H1; discriminate).
      unfold is_H_h. rewrite (folded_label R g' x F NIx). unfold is_H_h in H1. destruct (label g x); simpl; [|reflexivity].
      apply negb_true_iff. exact H1. }
    rewrite Ef. destruct (nbrs g h) as [|x0 xs0] eqn:Enb; [contradiction|]. rewrite <- Enb in *. clear Enb x0 xs0.
    destruct (bump_fold_nodes (nbrs g h) g') as [B1 B2]. split.
    - unfold remove_node; cbn [gnodes]. rewrite B1, F1, map_map. cbn [fst snd].
      rewrite (filter_map_fst (fun p : N * nattr => (fst p, bumpk (occ (fst p) (nbrs g h)) (bumpk (hsum R (fst p)) (snd p))))
                 (fun k => negb (N.eqb k h))) by (intros; reflexivity).
      rewrite filter_filter.
      rewrite (filter_ext_all (fun x : N * nattr => hkeepn R x && negb (N.eqb (fst x) h)) (hkeepn (h :: R)))
        by (intros p; rewrite hkeepn_cons; apply andb_comm).
      apply map_ext_in. intros [k a] I. apply filter_In in I. destruct I as [_ I]. rewrite hkeepn_cons in I. cbn [fst snd] in *.
      apply andb_prop in I. destruct I as [I _]. apply negb_true_iff in I. apply N.eqb_neq in I.
      f_equal. destruct a as [e ar hc ch nb]. unfold bumpk, set_hc; simpl. f_equal.
      unfold hsum, sum_cnt; cbn [fold_right]. rewrite (occ_nbrs_host g h k I). lia.
    - unfold remove_node; cbn [gedges]. rewrite B2, F2, filter_filter. apply filter_ext_all. intros [[a b] o].
      unfold mkeepe, mem. simpl. destruct (N.eqb a h), (N.eqb b h), (existsb (N.eqb a) R), (existsb (N.eqb b) R); reflexivity.
  Qed.

  Lemma fold_all hs : forall R g', folded_to R g' -> (forall x, In x R -> is_H_h g x = true) -> NoDup hs ->
    (forall h, In h hs -> is_H_h g h = true /\ ~ In h R) ->
    folded_to (rev hs ++ R) (fold_left hstep hs g').
  Proof.
    induction hs as [|h r IH]; intros R g' F HR Hn Hs; cbn [fold_left rev app]; [exact F|].
    inversion Hn as [|? ? Hnot Hn']; subst. destruct (Hs h (or_introl eq_refl)) as [HH NI].
    rewrite <- app_assoc. cbn [app]. apply IH.
    - exact (fold_step R g' h F HR NI HH).
    - intros x [<-|I]; [exact HH|auto].
    - exact Hn'.
    - intros x I. destruct (Hs x (or_intror I)) as [H1 H2]. split; [exact H1|]. intros [<-|I']; [contradiction|contradiction].
  Qed.

  Lemma folded_nil : folded_to [] g.
  Proof.
    split.
    - rewrite filter_all by (intros; reflexivity). rewrite <- (map_id (gnodes g)) at 1. apply map_ext. intros [k a].
      unfold bumpk, hsum, sum_cnt; simpl. rewrite Z.add_0_r. destruct a; reflexivity.
    - rewrite filter_all; [reflexivity|]. intros [[a b] o] _. reflexivity.
  Qed.

  Lemma h_nodes_h_spec h : In h (h_nodes_h g) <-> is_H_h g h = true.
  Proof.
    unfold h_nodes_h, is_H_h. split.
    - intros I. apply in_map_iff in I. destruct I as ([k a] & E & I). simpl in E; subst. apply filter_In in I. destruct I as [I Ha].
      rewrite (label_in g h a Hnd I). exact Ha.
    - destruct (label g h) as [a|] eqn:E; [|discriminate]. intros Ha. apply in_map_iff. exists (h, a). split; [reflexivity|].
      apply filter_In. split; [apply assoc_in; exact E|exact Ha].
  Qed.
  Lemma h_nodes_h_nodup : NoDup (h_nodes_h g).
  Proof. unfold h_nodes_h. apply NoDup_map_filter. exact Hnd. Qed.

  (** the substrate with implicit hydrogens *)
  Theorem fold_host_spec :
    let R := rev (h_nodes_h g) in
    (forall x, In x R <-> is_H_h g x = true) /\ NoDup R /\ folded_to R (h_to_implicit_host g).
  Proof.
    cbn zeta. split; [|split].
    - intros x. rewrite <- in_rev. apply h_nodes_h_spec.
    - apply NoDup_rev. exact h_nodes_h_nodup.
    - unfold h_to_implicit_host. change (fold_left _ (h_nodes_h g) g) with (fold_left hstep (h_nodes_h g) g).
      rewrite <- (app_nil_r (rev (h_nodes_h g))). apply fold_all.
      + exact folded_nil.
      + intros x [].
      + exact h_nodes_h_nodup.
      + intros h I. split; [apply h_nodes_h_spec; exact I|intros []].
  Qed.
End Fold.

(** * counting bonds in a simple edge list *)
Lemma cnt_none (es : list (N * N * Z)) h x : find_edge h x es = None -> cnt es h x = 0.
Proof.
  unfold cnt. induction es as [|[[a b] o] r IH]; simpl; [reflexivity|].
  change ((N.eqb a h && N.eqb b x) || (N.eqb a x && N.eqb b h)) with (peq a b h x).
  destruct (peq a b h x); [discriminate|]. exact IH.
Qed.
Lemma cnt_cons a b o (r : list (N * N * Z)) h x : cnt ((a, b, o) :: r) h x = (if peq a b h x then 1 else 0) + cnt r h x.
Proof. unfold cnt. cbn [filter fst snd]. destruct (peq a b h x); cbn [length]; lia. Qed.
Lemma cnt_simple (es : list (N * N * Z)) h x : simpleP (pairs es) ->
  cnt es h x = match find_edge h x es with Some _ => 1 | None => 0 end.
Proof.
  induction es as [|[[a b] o] r IH]; [reflexivity|]. intros (Hne & Hr & Hs). rewrite cnt_cons. cbn [find_edge].
  change ((N.eqb a h && N.eqb b x) || (N.eqb a x && N.eqb b h)) with (peq a b h x).
  destruct (peq a b h x) eqn:E.
  - rewrite cnt_none; [reflexivity|].
    apply find_edge_none_all. intros u v z I. apply (peq_false_trans u v a b h x); [|exact E].
    apply Hr. unfold pairs. change (u, v) with (fst (u, v, z)). apply in_map. exact I.
  - rewrite (IH Hs). lia.
Qed.
Lemma sum_cnt_ext es es' R x : (forall h, In h R -> cnt es h x = cnt es' h x) -> sum_cnt es R x = sum_cnt es' R x.
Proof. induction R as [|h r IH]; simpl; intros H; [reflexivity|]. rewrite (H h) by auto. rewrite IH; auto. Qed.
Lemma sum_cnt_perm es R R' x : Permutation R R' -> sum_cnt es R x = sum_cnt es R' x.
Proof. intros P. induction P; simpl; try lia. Qed.
Lemma sum_cnt_zero es R x : (forall h, In h R -> cnt es h x = 0) -> sum_cnt es R x = 0.
Proof. induction R as [|h r IH]; simpl; intros H; [reflexivity|]. rewrite (H h) by auto. rewrite IH; auto. Qed.
(** a filter that keeps the edges without end point in [R] (C03's [mkeepe], [keepe]) does not touch the edge between atoms outside [R] *)
Lemma find_edge_keep {B} (c : N * N * B -> bool) (es : list (N * N * B)) R u v :
  (forall e, c e = negb (mem (fst (fst e)) R) && negb (mem (snd (fst e)) R)) ->
  ~ In u R -> ~ In v R -> find_edge u v (filter c es) = find_edge u v es.
Proof.
  intros Hc Hu Hv. induction es as [|[[a b] o] r IH]; simpl; [reflexivity|].
  change ((N.eqb a u && N.eqb b v) || (N.eqb a v && N.eqb b u)) with (peq a b u v).
  rewrite Hc. cbn [fst snd]. destruct (peq a b u v) eqn:E.
  - assert (mem a R = false /\ mem b R = false) as [-> ->]
      by (destruct (peq_elim _ _ _ _ E) as [[-> ->]|[-> ->]]; split; apply mem_false; assumption).
    simpl. change ((N.eqb a u && N.eqb b v) || (N.eqb a v && N.eqb b u)) with (peq a b u v). rewrite E. reflexivity.
  - destruct (negb (mem a R) && negb (mem b R)); simpl; [|exact IH].
    change ((N.eqb a u && N.eqb b v) || (N.eqb a v && N.eqb b u)) with (peq a b u v). rewrite E. exact IH.
Qed.
Lemma find_edge_mkeepe (es : list (N * N * Z)) R u v : ~ In u R -> ~ In v R -> find_edge u v (filter (mkeepe R) es) = find_edge u v es.
Proof. apply find_edge_keep. reflexivity. Qed.
Lemma find_edge_keepe (es : list (N * N * iedge)) R u v : ~ In u R -> ~ In v R -> find_edge u v (filter (keepe R) es) = find_edge u v es.
Proof. apply find_edge_keep. reflexivity. Qed.
Lemma find_edge_endpoint_removed (es : list (N * N * Z)) R u v : In u R -> find_edge u v (filter (mkeepe R) es) = None.
Proof.
  intros Hu. apply find_edge_none_all. intros a b z I. apply filter_In in I. destruct I as [_ K]. unfold mkeepe in K. cbn [fst snd] in K.
  apply andb_prop in K. destruct K as [K1 K2]. apply negb_true_iff in K1, K2.
  unfold peq. destruct (N.eqb_spec a u) as [->|]; [apply mem_spec in Hu; congruence|].
  destruct (N.eqb_spec b u) as [->|]; [apply mem_spec in Hu; congruence|]. simpl. rewrite andb_false_r. reflexivity.
Qed.

(** * consequences of [folded_to] *)
Section Folded.
  Variables (g g' : hostg) (R : list N).
  Hypothesis F : folded_to g R g'.
  Hypothesis Hw : wf_hostb g = true.

  Lemma folded_ids : node_ids g' = map fst (filter (hkeepn R) (gnodes g)).
  Proof. destruct F as [F1 _]. unfold node_ids. rewrite F1, map_map. reflexivity. Qed.
  Lemma folded_in_ids n : In n (node_ids g') <-> In n (node_ids g) /\ ~ In n R.
  Proof.
    rewrite folded_ids. split.
    - intros I. apply in_map_iff in I. destruct I as ([k a] & E & I). simpl in E; subst. apply filter_In in I. destruct I as [I K].
      split; [unfold node_ids; change n with (fst (n, a)); apply in_map; exact I|].
      unfold hkeepn in K. cbn [fst] in K. apply negb_true_iff in K. intros J. apply mem_spec in J. congruence.
    - intros [I NI]. unfold node_ids in I. apply in_map_iff in I. destruct I as ([k a] & E & I). simpl in E; subst.
      apply in_map_iff. exists (n, a). split; [reflexivity|]. apply filter_In. split; [exact I|].
      unfold hkeepn. cbn [fst]. rewrite (mem_false n R NI). reflexivity.
  Qed.
  Lemma folded_nodup : NoDup (node_ids g').
  Proof. rewrite folded_ids. apply NoDup_map_filter. exact (wf_host_nodup g Hw). Qed.
  Lemma folded_label_in n : In n R -> label g' n = None.
  Proof.
    intros I. destruct (label g' n) as [a|] eqn:E; [|reflexivity]. exfalso.
    apply label_some_in in E. apply folded_in_ids in E. tauto.
  Qed.
  Lemma folded_label_elim n x : label g' n = Some x ->
    ~ In n R /\ exists x0, label g n = Some x0 /\ x = bumpk (hsum g R n) x0.
  Proof.
    intros E. assert (NI : ~ In n R) by (intros I; rewrite (folded_label_in n I) in E; discriminate).
    split; [exact NI|]. rewrite (folded_label g R g' n F NI) in E. destruct (label g n) as [x0|]; [|discriminate].
    inversion E. eauto.
  Qed.
  Lemma folded_adj u v : adj g' u v = if mem u R || mem v R then None else adj g u v.
  Proof.
    destruct F as [_ F2]. unfold adj. rewrite F2.
    destruct (mem u R) eqn:Eu; simpl.
    - apply find_edge_endpoint_removed. apply mem_spec. exact Eu.
    - destruct (mem v R) eqn:Ev.
      + rewrite find_edge_sym. apply find_edge_endpoint_removed. apply mem_spec. exact Ev.
      + apply find_edge_mkeepe; intros J; apply mem_spec in J; congruence.
  Qed.
  Lemma folded_order u v : order_in g' u v = if mem u R || mem v R then 0 else order_in g u v.
  Proof. unfold order_in. rewrite folded_adj. destruct (mem u R || mem v R); reflexivity. Qed.
  Lemma folded_wf : wf_hostb g' = true.
  Proof.
    unfold wf_hostb. apply andb_true_intro; split; [apply andb_true_intro; split|].
    - apply NoDup_nodupb. exact folded_nodup.
    - apply simple_b_of_P. destruct F as [_ F2]. rewrite F2. apply simpleP_filter. apply host_simple. exact Hw.
    - apply forallb_forall. intros [[a b] o] I. destruct F as [_ F2]. rewrite F2 in I. apply filter_In in I. destruct I as [I _].
      simpl. apply Z.ltb_lt. exact (wf_host_orders g a b o Hw I).
  Qed.
  Lemma folded_closed : closed g -> closed g'.
  Proof.
    intros C u v o I. destruct F as [_ F2]. rewrite F2 in I. apply filter_In in I. destruct I as [I K].
    unfold mkeepe in K. cbn [fst snd] in K. apply andb_prop in K. destruct K as [K1 K2]. apply negb_true_iff in K1, K2.
    destruct (C u v o I) as [Iu Iv]. split; apply folded_in_ids; (split; [assumption|]); intros J; apply mem_spec in J; congruence.
  Qed.
End Folded.

Lemma nodup_app {X} (l1 l2 : list X) : NoDup l1 -> NoDup l2 -> (forall x, In x l1 -> ~ In x l2) -> NoDup (l1 ++ l2).
Proof.
  induction l1 as [|y r IH]; simpl; intros H1 H2 Hd; [exact H2|]. inversion H1; subst. constructor.
  - intros I. apply in_app_or in I. destruct I as [I|I]; [contradiction|]. exact (Hd y (or_introl eq_refl) I).
  - apply IH; auto.
Qed.
Lemma sum_cnt_app es l1 l2 x : sum_cnt es (l1 ++ l2) x = sum_cnt es l1 x + sum_cnt es l2 x.
Proof. induction l1 as [|h r IH]; simpl; [reflexivity|]. rewrite IH. lia. Qed.
Lemma cnt_nonneg es h x : 0 <= cnt es h x.
Proof. unfold cnt. lia. Qed.
Lemma sum_cnt_nonneg es R x : 0 <= sum_cnt es R x.
Proof. induction R as [|h r IH]; simpl; [lia|]. pose proof (cnt_nonneg es h x). lia. Qed.

(** * the bridge *)
Definition foldable (g : hostg) : Prop :=
  forall h, is_H_h g h = true -> nbrs g h <> [] /\ forall x, In x (nbrs g h) -> is_H_h g x = false /\ has_node g x = true.

Section Bridge.
  Variables (A B : hostg) (tpl rc : its) (R : list N).
  Hypothesis PW : pair_wf A B.
  Hypothesis CA : closed A.
  Hypothesis CB : closed B.
  Hypothesis D : describes A B tpl.
  (** default-mode way of writing the reaction: no implicit hydrogen change, counts not negative, every hydrogen atom
      bonded to non-hydrogen atoms on both sides *)
  Hypothesis E1 : forall n x y, label A n = Some x -> label B n = Some y -> a_hc x = a_hc y.
  Hypothesis E2 : forall n x, label A n = Some x -> 0 <= a_hc x.
  Hypothesis FA : foldable A.
  Hypothesis FB : foldable B.
  (** a hydrogen atom that is an atom of the template is there with all its bonds (the others are spectators) *)
  Hypothesis E3 : forall h, is_H_h A h = true -> In h (node_ids tpl) ->
    forall k, adj A h k <> None \/ adj B h k <> None -> exists x, adj tpl h k = Some x.
  (** the rule: the template without its hydrogen atoms [R], counts = bonds to [R] on each side *)
  Hypothesis RH : forall h, In h R <-> In h (node_ids tpl) /\ is_H_h A h = true.
  Hypothesis RN : NoDup R.
  Hypothesis RCn : NoDup (node_ids rc).
  Hypothesis RCi : forall k, In k (node_ids rc) <-> In k (node_ids tpl) /\ ~ In k R.
  Hypothesis RCa : forall k a0, label tpl k = Some a0 -> ~ In k R ->
    exists a, label rc k = Some a /\ a_el (iG a) = a_el (iG a0) /\ a_el (iH a) = a_el (iH a0) /\
              a_ch (iG a) = a_ch (iG a0) /\ a_ch (iH a) = a_ch (iH a0) /\
              a_hc (iG a) = sum_cnt (gedges (side0 iG eG tpl)) R k /\ a_hc (iH a) = sum_cnt (gedges (side0 iH eH tpl)) R k.
  Hypothesis RCe : gedges rc = filter (keepe R) (gedges tpl).

  Let HA := pw_A _ _ PW.
  Let HB := pw_B _ _ PW.
  Let Hwr := d_wf _ _ _ D.
  Let A' := h_to_implicit_host A.
  Let B' := h_to_implicit_host B.
  Let RA := rev (h_nodes_h A).
  Let RB := rev (h_nodes_h B).
  Let SA : (forall x, In x RA <-> is_H_h A x = true) /\ NoDup RA /\ folded_to A RA A' := fold_host_spec A (wf_host_nodup A HA) FA.
  Let SB : (forall x, In x RB <-> is_H_h B x = true) /\ NoDup RB /\ folded_to B RB B' := fold_host_spec B (wf_host_nodup B HB) FB.

  Lemma isH_AB h : is_H_h B h = is_H_h A h.
  Proof.
    unfold is_H_h. destruct (label A h) as [x|] eqn:Ex.
    - destruct (in_ids_label B h (proj1 (pw_ids _ _ PW h) (label_some_in A h x Ex))) as [y Ey]. rewrite Ey.
      rewrite (pw_el _ _ PW h x y Ex Ey). reflexivity.
    - destruct (label B h) as [y|] eqn:Ey; [|reflexivity]. exfalso. apply (label_none A h Ex). apply (pw_ids _ _ PW h).
      exact (label_some_in B h y Ey).
  Qed.
  Lemma R_RA h : In h R -> In h RA.
  Proof. intros I. apply (proj1 SA h). exact (proj2 (proj1 (RH h) I)). Qed.
  Lemma RA_RB h : In h RA <-> In h RB.
  Proof.
    split; intros I.
    - apply (proj1 SB h). rewrite isH_AB. apply (proj1 SA h). exact I.
    - apply (proj1 SA h). rewrite <- isH_AB. apply (proj1 SB h). exact I.
  Qed.
  Lemma mem_RB h : mem h RB = mem h RA.
  Proof. destruct (mem h RB) eqn:E1', (mem h RA) eqn:E2'; try reflexivity.
    - apply mem_spec in E1'. apply RA_RB in E1'. apply mem_spec in E1'. congruence.
    - apply mem_spec in E2'. apply RA_RB in E2'. apply mem_spec in E2'. congruence.
  Qed.
  (** an atom of the template that is not one of its hydrogen atoms is no hydrogen atom at all *)
  Lemma tpl_notR_notRA k : In k (node_ids tpl) -> ~ In k R -> ~ In k RA.
  Proof. intros It NI I. apply NI. apply RH. split; [exact It|]. exact (proj1 (proj1 SA k) I). Qed.

  (** the hydrogen atoms of A: those of the template, then the spectators *)
  Definition spect (L : list N) : list N := filter (fun h => negb (mem h R)) L.
  Lemma perm_split L : NoDup L -> (forall h, In h R -> In h L) -> Permutation L (R ++ spect L).
  Proof.
    intros NL Hin. apply NoDup_Permutation; [exact NL| |].
    - apply nodup_app; [exact RN|apply NoDup_filter; exact NL|]. intros x I J. apply filter_In in J. destruct J as [_ J].
      apply negb_true_iff in J. apply mem_spec in I. congruence.
    - intros x. rewrite in_app_iff. unfold spect. rewrite filter_In. split.
      + intros I. destruct (mem x R) eqn:E; [left; apply mem_spec; exact E|right; split; [exact I|reflexivity]].
      + intros [I|[I _]]; [exact (Hin x I)|exact I].
  Qed.
  Lemma perm_RA : Permutation RA (R ++ spect RA).
  Proof. apply perm_split; [exact (proj1 (proj2 SA))|exact R_RA]. Qed.
  Lemma perm_RB : Permutation RB (R ++ spect RB).
  Proof. apply perm_split; [exact (proj1 (proj2 SB))|]. intros h I. apply RA_RB. exact (R_RA h I). Qed.
  Lemma perm_spect : Permutation (spect RA) (spect RB).
  Proof.
    apply NoDup_Permutation; [apply NoDup_filter; exact (proj1 (proj2 SA))|apply NoDup_filter; exact (proj1 (proj2 SB))|].
    intros x. unfold spect. rewrite !filter_In. rewrite (RA_RB x). reflexivity.
  Qed.
  Lemma spect_not_tpl h : In h (spect RA) -> is_H_h A h = true /\ ~ In h (node_ids tpl).
  Proof.
    intros I. unfold spect in I. apply filter_In in I. destruct I as [I K]. pose proof (proj1 (proj1 SA h) I) as Hh.
    split; [exact Hh|]. intros It. apply negb_true_iff in K. assert (In h R) by (apply RH; auto). apply mem_spec in H. congruence.
  Qed.

  (** bonds of a template side to a hydrogen atom = bonds of the molecule to it *)
  Lemma side0_edges sn se : gedges (side0 sn se tpl) = gedges (dec_side sn se tpl).
  Proof. reflexivity. Qed.
  Lemma tpl_simpleP : simpleP (pairs (gedges tpl)).
  Proof. apply simpleP_of_b. exact (wf_rc_simple tpl Hwr). Qed.

  (** one side ([sn] / [se] select it, [X] is the molecule there) *)
  Lemma cnt_side (sn : inode -> nattr) (se : iedge -> Z) (X : hostg) h k : wf_hostb X = true ->
    (forall u v x, In (u, v, x) (gedges tpl) -> se x = order_in X u v) ->
    (adj X h k <> None -> exists x, adj tpl h k = Some x) ->
    cnt (gedges (side0 sn se tpl)) h k = cnt (gedges X) h k.
  Proof.
    intros HX Ho Hc. rewrite side0_edges.
    assert (SD : simpleP (pairs (gedges (dec_side sn se tpl)))).
    { apply simpleP_of_b. unfold dec_side; cbn [gedges].
      exact (simple_flat_sub (fun x : iedge => 0 <? se x) se (gedges tpl) (wf_rc_simple tpl Hwr)). }
    rewrite (cnt_simple _ h k SD), (cnt_simple _ h k (host_simple X HX)).
    fold (adj (dec_side sn se tpl) h k). rewrite (dec_adj sn se tpl h k tpl_simpleP). fold (adj X h k).
    assert (Hs : forall x, adj tpl h k = Some x -> se x = order_in X h k).
    { intros x Ex. unfold adj in Ex. apply find_edge_in in Ex. destruct Ex as (p & q & J & Hp).
      rewrite <- (order_in_peq X p q h k Hp). exact (Ho p q x J). }
    destruct (adj X h k) as [o|] eqn:Ea.
    - destruct Hc as [x Ex]; [discriminate|]. rewrite Ex. specialize (Hs x Ex).
      destruct (order_in_pos X h k o HX Ea) as [Eo Ho']. destruct (Z.ltb_spec 0 (se x)); [reflexivity|lia].
    - destruct (adj tpl h k) as [x|] eqn:Ex; [|reflexivity]. specialize (Hs x eq_refl).
      unfold order_in in Hs. rewrite Ea in Hs. destruct (Z.ltb_spec 0 (se x)); [lia|reflexivity].
  Qed.

  Lemma sum_G k : sum_cnt (gedges (side0 iG eG tpl)) R k = hsum A R k.
  Proof.
    unfold hsum. apply sum_cnt_ext. intros h I. destruct (proj1 (RH h) I) as [Ih Hh]. apply (cnt_side iG eG A h k HA).
    - intros u v x J. exact (proj1 (proj2 (proj2 (d_edges _ _ _ D u v x J)))).
    - intros Ne. exact (E3 h Hh Ih k (or_introl Ne)).
  Qed.
  Lemma sum_H k : sum_cnt (gedges (side0 iH eH tpl)) R k = hsum B R k.
  Proof.
    unfold hsum. apply sum_cnt_ext. intros h I. destruct (proj1 (RH h) I) as [Ih Hh]. apply (cnt_side iH eH B h k HB).
    - intros u v x J. exact (proj2 (proj2 (proj2 (d_edges _ _ _ D u v x J)))).
    - intros Ne. exact (E3 h Hh Ih k (or_intror Ne)).
  Qed.

  (** a spectator hydrogen has the same bonds on both sides *)
  Lemma spect_cnt h k : In h (spect RA) -> cnt (gedges A) h k = cnt (gedges B) h k.
  Proof.
    intros I. destruct (spect_not_tpl h I) as [Hh NT].
    rewrite (cnt_simple _ h k (host_simple A HA)), (cnt_simple _ h k (host_simple B HB)).
    fold (adj A h k). fold (adj B h k).
    assert (E : order_in A h k = order_in B h k).
    { destruct (Z.eq_dec (order_in A h k) (order_in B h k)) as [E|NE]; [exact E|]. exfalso.
      destruct (d_cover_e _ _ _ D h k NE) as [x Ex]. unfold adj in Ex. apply find_edge_in in Ex. destruct Ex as (p & q & J & Hp).
      destruct (d_edges _ _ _ D p q x J) as (Ip & Iq & _). apply NT.
      destruct (peq_elim _ _ _ _ Hp) as [[-> _]|[_ ->]]; assumption. }
    rewrite (order_in_eq_adj A B h k HA HB E). reflexivity.
  Qed.
  Definition hS (k : N) : Z := hsum A (spect RA) k.
  Lemma hsum_A k : hsum A RA k = hsum A R k + hS k.
  Proof. unfold hsum, hS, hsum. rewrite (sum_cnt_perm (gedges A) RA (R ++ spect RA) k perm_RA). apply sum_cnt_app. Qed.
  Lemma hsum_B k : hsum B RB k = hsum B R k + hS k.
  Proof.
    unfold hsum, hS, hsum. rewrite (sum_cnt_perm (gedges B) RB (R ++ spect RB) k perm_RB), sum_cnt_app. f_equal.
    rewrite <- (sum_cnt_perm (gedges B) (spect RA) (spect RB) k perm_spect). symmetry. apply sum_cnt_ext. intros h I. apply spect_cnt. exact I.
  Qed.
  Lemma hS_nonneg k : 0 <= hS k.
  Proof. apply sum_cnt_nonneg. Qed.

  Let FAA : folded_to A RA A' := proj2 (proj2 SA).
  Let FBB : folded_to B RB B' := proj2 (proj2 SB).

  Lemma notin_RB n : ~ In n RA -> ~ In n RB.
  Proof. intros H I. apply H. apply RA_RB. exact I. Qed.

  Lemma folded_labels n x' y' : label A' n = Some x' -> label B' n = Some y' ->
    ~ In n RA /\ exists x y, label A n = Some x /\ label B n = Some y /\
                            x' = bumpk (hsum A RA n) x /\ y' = bumpk (hsum B RB n) y.
  Proof.
    intros Ex' Ey'. destruct (folded_label_elim A A' RA FAA n x' Ex') as (NI & x & Ex & ->).
    destruct (folded_label_elim B B' RB FBB n y' Ey') as (_ & y & Ey & ->). split; [exact NI|]. exists x, y. auto.
  Qed.

  Lemma pair_folded : pair_wf A' B'.
  Proof.
    constructor.
    - exact (folded_wf A A' RA FAA HA).
    - exact (folded_wf B B' RB FBB HB).
    - intros n. rewrite (folded_in_ids A A' RA FAA n), (folded_in_ids B B' RB FBB n).
      split; intros [I NI]; (split; [apply (pw_ids _ _ PW); exact I|]); intros J; apply NI; apply RA_RB; exact J.
    - intros n x' y' Ex' Ey'. destruct (folded_labels n x' y' Ex' Ey') as (_ & x & y & Ex & Ey & -> & ->).
      simpl. exact (pw_el _ _ PW n x y Ex Ey).
  Qed.

  Lemma order_A' u v : ~ In u RA -> ~ In v RA -> order_in A' u v = order_in A u v.
  Proof.
    intros Hu Hv. rewrite (folded_order A A' RA FAA u v), (mem_false u RA Hu), (mem_false v RA Hv). reflexivity.
  Qed.
  Lemma order_B' u v : ~ In u RA -> ~ In v RA -> order_in B' u v = order_in B u v.
  Proof.
    intros Hu Hv. rewrite (folded_order B B' RB FBB u v), !mem_RB, (mem_false u RA Hu), (mem_false v RA Hv). reflexivity.
  Qed.

  Lemma rc_edge_in u v x : In (u, v, x) (gedges rc) -> In (u, v, x) (gedges tpl) /\ ~ In u R /\ ~ In v R.
  Proof.
    rewrite RCe. intros I. apply filter_In in I. destruct I as [I K]. unfold keepe in K. cbn [fst snd] in K.
    apply andb_prop in K. destruct K as [K1 K2]. apply negb_true_iff in K1, K2.
    split; [exact I|]. split; intros J; apply mem_spec in J; congruence.
  Qed.

  Theorem rule_fits_folded : fits A' B' rc.
  Proof.
    constructor.
    - exact (wf_rcb_filter tpl rc _ Hwr RCn RCe).
    - intros k a I.
      assert (Ik : In k (node_ids rc)) by (unfold node_ids; change k with (fst (k, a)); apply in_map; exact I).
      destruct (proj1 (RCi k) Ik) as [It NI]. destruct (in_ids_label tpl k It) as [a0 Ea0].
      destruct (RCa k a0 Ea0 NI) as (a' & Ea' & C1 & C2 & C3 & C4 & C5 & C6).
      rewrite (label_in rc k a RCn I) in Ea'. inversion Ea'; subst a'.
      destruct (d_nodes _ _ _ D k a0 (assoc_in k (gnodes tpl) Ea0)) as (x & y & Ex & Ey & N1 & N2 & N3 & N4 & _ & _).
      pose proof (tpl_notR_notRA k It NI) as NA.
      exists (bumpk (hsum A RA k) x), (bumpk (hsum B RB k) y).
      split; [rewrite (folded_label A RA A' k FAA NA), Ex; reflexivity|].
      split; [rewrite (folded_label B RB B' k FBB (notin_RB k NA)), Ey; reflexivity|].
      unfold node_fit, bumpk, set_hc; simpl. rewrite C1, C2, C3, C4, C5, C6, sum_G, sum_H, hsum_A, hsum_B.
      pose proof (E2 k x Ex). pose proof (E1 k x y Ex Ey). pose proof (hS_nonneg k). repeat split; auto; lia.
    - intros u v x I. destruct (rc_edge_in u v x I) as (I0 & Nu & Nv).
      destruct (d_edges _ _ _ D u v x I0) as (Iu & Iv & Eg & Eh).
      split; [apply RCi; auto|]. split; [apply RCi; auto|].
      rewrite (order_A' u v (tpl_notR_notRA u Iu Nu) (tpl_notR_notRA v Iv Nv)), (order_B' u v (tpl_notR_notRA u Iu Nu) (tpl_notR_notRA v Iv Nv)). auto.
  Qed.

  (** an atom outside the template has no bond to a hydrogen atom of the template *)
  Lemma no_H_bond_outside n : ~ In n (node_ids tpl) -> hsum A R n = 0 /\ hsum B R n = 0.
  Proof.
    intros NT.
    assert (K : forall (X : hostg), (forall h k, In h R -> adj X h k <> None -> exists x, adj tpl h k = Some x) -> hsum X R n = 0).
    { intros X HE. unfold hsum. apply sum_cnt_zero. intros h I.
      destruct (find_edge h n (gedges X)) as [o|] eqn:Ef; [|apply cnt_none; exact Ef]. exfalso.
      destruct (HE h n I) as [x Ex]; [unfold adj; rewrite Ef; discriminate|].
      unfold adj in Ex. apply find_edge_in in Ex. destruct Ex as (p & q & J & Hp).
      destruct (d_edges _ _ _ D p q x J) as (Ip & Iq & _). apply NT.
      destruct (peq_elim _ _ _ _ Hp) as [[_ ->]|[-> _]]; assumption. }
    split; apply K; intros h k I Ne; destruct (proj1 (RH h) I) as [Ih Hh].
    - exact (E3 h Hh Ih k (or_introl Ne)).
    - exact (E3 h Hh Ih k (or_intror Ne)).
  Qed.

  Theorem rule_describes_folded : describes A' B' rc.
  Proof.
    constructor.
    - exact rule_fits_folded.
    - intros u v NE.
      destruct (in_dec N.eq_dec u RA) as [Iu|Nu].
      { exfalso. apply NE. rewrite (folded_order A A' RA FAA u v), (folded_order B B' RB FBB u v), mem_RB.
        apply mem_spec in Iu. rewrite Iu. reflexivity. }
      destruct (in_dec N.eq_dec v RA) as [Iv|Nv].
      { exfalso. apply NE. rewrite (folded_order A A' RA FAA u v), (folded_order B B' RB FBB u v), !mem_RB.
        apply mem_spec in Iv. rewrite Iv, !orb_true_r. reflexivity. }
      rewrite (order_A' u v Nu Nv), (order_B' u v Nu Nv) in NE.
      destruct (d_cover_e _ _ _ D u v NE) as [x Ex]. exists x. unfold adj. rewrite RCe.
      rewrite (find_edge_keepe (gedges tpl) R u v); [exact Ex| |]; intros J; [apply Nu|apply Nv]; apply R_RA; exact J.
    - intros n x' y' Ex' Ey' NE. destruct (folded_labels n x' y' Ex' Ey') as (NI & x & y & Ex & Ey & -> & ->).
      apply RCi. split; [|intros J; apply NI; apply R_RA; exact J].
      destruct (in_dec N.eq_dec n (node_ids tpl)) as [I|NT]; [exact I|]. exfalso. apply NE.
      destruct (no_H_bond_outside n NT) as [ZA ZB]. rewrite hsum_A, hsum_B, ZA, ZB.
      destruct (sel_dec x y) as [E|NE']; [|exfalso; exact (NT (d_cover_n _ _ _ D n x y Ex Ey NE'))].
      unfold sel, bumpk, set_hc in *; simpl. inversion E. congruence.
  Qed.
End Bridge.
