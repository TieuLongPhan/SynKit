(** C08 — the repaired SynRule equality is EXACT for rules whose stored fragments are the its_decompose projections of their stored
    ITS graph ([left_of] / [right_of]; checked on every case by [derived_b]): equal <=> ONE bijection preserving the two-sided ITS. *)
From Coq Require Import String List NArith ZArith Bool Arith Lia Permutation.
From SK Require Import lib.LGraph lib.StrJoin.
From SK Require Import model.C08_Model model.C08_Rule2 proof.C08_Spec proof.C08_Rule2Spec proof.C08_Sort proof.C08_Faithful proof.C08_Cov
                       proof.C08_SigFun proof.C08_Render proof.C08_Nauty proof.C08_Sound proof.C08_Invariant proof.C08_Value proof.C08_Rule2.
Import ListNotations.

(* covered views of the projections are functions of the two-sided covered view *)
Definition LE (c : N * N * ecv) : list (N * N * ecv) :=
  let '(u, v, (o, t, s)) := c in if (0 <? o)%Z then [(u, v, (o, None, None))] else [].
Definition RE (c : N * N * ecv) : list (N * N * ecv) :=
  let '(u, v, (o, t, s)) := c in match t with Some b => if (0 <? b)%Z then [(u, v, (b, None, None))] else [] | None => [] end.
Lemma cov_nodes_left g : cov_nodes (left_of g) = map (fun c : N * (cv * cv) => (fst c, fst (snd c))) (cov2_nodes g).
Proof. unfold cov_nodes, cov2_nodes, left_of. cbn [gnodes]. rewrite !map_map. reflexivity. Qed.
Lemma cov_nodes_right g : cov_nodes (right_of g) = map (fun c : N * (cv * cv) => (fst c, snd (snd c))) (cov2_nodes g).
Proof. unfold cov_nodes, cov2_nodes, right_of. cbn [gnodes]. rewrite !map_map. reflexivity. Qed.
Lemma cov_edges_left g : cov_edges (left_of g) = flat_map LE (cov2_edges g).
Proof.
  unfold cov_edges, cov2_edges, left_of. cbn [gedges]. induction (gedges g) as [|[[u v] [o s t]] l IH]; [reflexivity|].
  cbn [flat_map map]. rewrite map_app, IH. f_equal. unfold cove, LE, ecov. cbn [eo es et]. destruct (0 <? o)%Z; reflexivity.
Qed.
Lemma cov_edges_right g : cov_edges (right_of g) = flat_map RE (cov2_edges g).
Proof.
  unfold cov_edges, cov2_edges, right_of. cbn [gedges]. induction (gedges g) as [|[[u v] [o s t]] l IH]; [reflexivity|].
  cbn [flat_map map]. rewrite map_app, IH. f_equal. unfold cove, RE, ecov. cbn [eo es et].
  destruct t as [b|]; [destruct (0 <? b)%Z|]; reflexivity.
Qed.
Lemma geq2_left g h : geq2 g h -> geq_cov (left_of g) (left_of h).
Proof.
  intros [H1 H2]. split; [rewrite !cov_nodes_left; apply Permutation_map; exact H1|].
  rewrite !cov_edges_left. apply Permutation_flat_map. exact H2.
Qed.
Lemma geq2_right g h : geq2 g h -> geq_cov (right_of g) (right_of h).
Proof.
  intros [H1 H2]. split; [rewrite !cov_nodes_right; apply Permutation_map; exact H1|].
  rewrite !cov_edges_right. apply Permutation_flat_map. exact H2.
Qed.
Lemma left_relabel f g : left_of (relabel f g) = relabel f (left_of g).
Proof.
  unfold left_of, relabel. cbn [gnodes gedges]. rewrite !map_map. f_equal.
  induction (gedges g) as [|[[u v] x] l IH]; [reflexivity|]. cbn [map flat_map]. rewrite map_app, IH. f_equal.
  destruct (0 <? eo x)%Z; reflexivity.
Qed.
Lemma right_relabel f g : right_of (relabel f g) = relabel f (right_of g).
Proof.
  unfold right_of, relabel. cbn [gnodes gedges]. rewrite !map_map. f_equal.
  induction (gedges g) as [|[[u v] x] l IH]; [reflexivity|]. cbn [map flat_map]. rewrite map_app, IH. f_equal.
  destruct (et x) as [b|]; [destruct (0 <? b)%Z|]; reflexivity.
Qed.
Lemma node_ids_left g : node_ids (left_of g) = node_ids g.
Proof. unfold node_ids, left_of. cbn [gnodes]. rewrite map_map. reflexivity. Qed.
Lemma node_ids_right g : node_ids (right_of g) = node_ids g.
Proof. unfold node_ids, right_of. cbn [gnodes]. rewrite map_map. reflexivity. Qed.

(* a fragment that is (on the covered attributes) the projection P of the ITS graph follows every isomorphism of the ITS graph *)
Lemma fragment_follows (P : graph2 -> graph) (its its' : graph2) (l l' : graph) f :
  (forall g, node_ids (P g) = node_ids g) -> (forall g, P (relabel f g) = relabel f (P g)) -> (forall g h, geq2 g h -> geq_cov (P g) (P h)) ->
  geq_cov l (P its) -> geq_cov l' (P its') -> C08_Spec.inj_on f (node_ids its) -> geq2 (relabel f its) its' -> iso_cov l l'.
Proof.
  intros Hid Hrel Hgeq Dl Dl' Hf Hq. exists f. split.
  - pose proof (geq_cov_ids _ _ Dl) as Pm. rewrite Hid in Pm. intros x y Hx Hy. apply Hf; apply (Permutation_in _ Pm); auto.
  - eapply geq_cov_trans; [apply relabel_geq_cov; exact Dl|]. rewrite <- Hrel.
    eapply geq_cov_trans; [apply Hgeq; exact Hq|]. apply geq_cov_sym. exact Dl'.
Qed.

Definition rule2_derived (a : rule2) : Prop :=
  geq_cov (snd (fst a)) (left_of (fst (fst a))) /\ geq_cov (snd a) (right_of (fst (fst a))).

Theorem rule2_exact a b : rule2_ok a -> rule2_ok b -> rule2_derived a -> rule2_derived b ->
  (rule2_eqb a b = true <-> iso2 (fst (fst a)) (fst (fst b))).
Proof.
  intros Ha Hb [Dl Dr] [Dl' Dr']. apply (rule2_eq_exact a b Ha Hb). intros (f & Hf & Hq). split.
  - apply (fragment_follows left_of _ _ _ _ f node_ids_left (left_relabel f) geq2_left Dl Dl' Hf Hq).
  - apply (fragment_follows right_of _ _ _ _ f node_ids_right (right_relabel f) geq2_right Dr Dr' Hf Hq).
Qed.

(* the check the correspondence evaluates on the implementation's values implies the premise *)
Theorem derived_b_sound a : rule2_ok a -> els_ok (left_of (fst (fst a))) -> els_ok (right_of (fst (fst a))) -> derived_b a = true -> rule2_derived a.
Proof.
  intros (_ & (_ & K2) & (_ & K3)) KL KR E. unfold derived_b in E. rewrite andb_true_iff, !str_eqb_spec in E. destruct E as [E1 E2].
  split; apply serialise_inj; auto.
Qed.

Theorem rule2_exact_flat (its its' : graph2) (l r l' r' : graph) :
  wf its -> wf l -> wf r -> wf its' -> wf l' -> wf r' -> els2_ok its -> els_ok l -> els_ok r -> els2_ok its' -> els_ok l' -> els_ok r' ->
  geq_cov l (left_of its) -> geq_cov r (right_of its) -> geq_cov l' (left_of its') -> geq_cov r' (right_of its') ->
  (rule2_eqb (its, l, r) (its', l', r') = true <-> exists f, C08_Spec.inj_on f (node_ids its) /\ geq2 (relabel f its) its').
Proof. intros. apply (rule2_exact (its, l, r) (its', l', r')); unfold rule2_ok, rule2_derived; cbn [fst snd]; auto. Qed.

(* non-vacuity: the witness rules w2_A, w2_B of C08_Rule2.v are derived (their fragments w_l, w_r are the projections); w2_A' renumbers
   the ITS graph only and keeps the fragments of w2_A: not derived *)
Example derived_ex : derived_b w2_A = true /\ derived_b w2_B = true /\ derived_b w2_A' = false.
Proof. repeat apply conj; vm_compute; reflexivity. Qed.

Print Assumptions rule2_exact.
Print Assumptions derived_b_sound.

(* the projections of an ITS graph with alphanumeric element symbols have admissible element symbols *)
Lemma els_ok_left g : els2_ok g -> els_ok (left_of g).
Proof.
  intros H p I. unfold left_of in I. cbn [gnodes] in I. apply in_map_iff in I. destruct I as (q & <- & I). cbn [snd].
  destruct (H _ I) as [H0 _]. apply (forallb_weaken alnum elc _ alnum_elc). exact H0.
Qed.
Lemma els_ok_right g : els2_ok g -> els_ok (right_of g).
Proof.
  intros H p I. unfold right_of in I. cbn [gnodes] in I. apply in_map_iff in I. destruct I as (q & <- & I). cbn [snd].
  destruct (H _ I) as [_ H1]. apply (forallb_weaken alnum elc _ alnum_elc). exact H1.
Qed.
Theorem derived_b_sound_flat (its : graph2) (l r : graph) : els2_ok its -> els_ok l -> els_ok r ->
  derived_b (its, l, r) = true -> geq_cov l (left_of its) /\ geq_cov r (right_of its).
Proof.
  intros K1 K2 K3 E. unfold derived_b in E. cbn [fst snd] in E. rewrite andb_true_iff, !str_eqb_spec in E. destruct E as [E1 E2].
  split; apply serialise_inj; auto using els_ok_left, els_ok_right.
Qed.
Print Assumptions derived_b_sound_flat.
