(** C02 — the centre of a context is the centre of the ITS: for k >= 1, get_rc (extract_k g k) and get_rc g have the same
    atoms with the same labels and the same bonds (a context carries its reaction centre; this is what lets HierContext
    re-extract from contexts). *)
From Coq Require Import List NArith ZArith Bool Lia.
From SK Require Import lib.LGraph lib.C01_GraphLemmas model.C01_Model model.C02_Model model.C02_Store proof.C02_Proof
                       proof.C02_Ball proof.C02_Opts.
Import ListNotations.
Local Open Scope Z_scope.

Section CtxCentre.
Variable g : its.
Hypothesis W : wf g.
Variable k : nat.
Hypothesis Hk : (1 <= k)%nat.
Local Notation C := (extract_k g k).

(** the radius-k context is a ball around the centre atoms, and such a ball has the same centre ([rcx_of_ball] on [emb g]) *)
Theorem rc_of_context : geq (get_rc C) (get_rc g).
Proof.
  destruct k as [|j]; [lia|].
  apply (geq_gmap_inv xn_of (fun e : iedge => (e, Some false))); [apply xn_of_inj|intros x y [= ->]; reflexivity|].
  rewrite <- !rcx_default_emb. change (extract_k g (S j)) with (ball_sub g (node_ids (get_rc g)) (S j)).
  unfold emb at 1. rewrite ball_sub_gmap. apply rcx_of_ball; [apply wf_gmap; exact W|].
  intros n. rewrite node_ids_rc_emb. auto.
Qed.
End CtxCentre.

Example C02_rc_of_context_nonvacuous :
  geq (get_rc (extract_k ex_its 2)) (get_rc ex_its) /\ length (gnodes (extract_k ex_its 2)) = 7%nat /\
  length (gnodes (get_rc ex_its)) = 5%nat.
Proof. split; [apply rc_of_context; [apply ex_its_wf|lia]|split; vm_compute; reflexivity]. Qed.
