(** C10 — proofs: the positive side of the known finding smiles_to_graph:use_index_as_atom_map:partial-mapping-id-collision.
    MolToGraph.transform(drop_non_aam=False, use_index_as_atom_map=ui) loses no atom exactly when the ids it assigns are pairwise
    distinct: then the graph has one node per atom, in atom order, with these ids. *)
From Coq Require Import String List NArith ZArith Bool Lia.
From SK Require Import lib.LGraph lib.StrJoin model.C10_Model model.C10_Rxn proof.C10_Views proof.C10_Build proof.C10_Copy
  proof.C10_MolGraph.
Import ListNotations.
Local Open Scope Z_scope.

Lemma m2g_nodes_ids ui atoms : forall idx (g : gr) i2,
  NoDup (node_ids g ++ atom_ids ui idx atoms) -> gwf g ->
  (forall bi u, assoc bi i2 = Some u -> has_node g u = true) ->
  let st := m2g_nodes false ui idx atoms (g, i2) in
  node_ids (fst st) = node_ids g ++ atom_ids ui idx atoms /\ gedges (fst st) = gedges g /\ gwf (fst st) /\
  (forall bi u, assoc bi (snd st) = Some u -> has_node (fst st) u = true).
Proof.
  induction atoms as [|a r IH]; intros idx g i2 Hnd W Hi; cbn [m2g_nodes atom_ids].
  - cbv zeta. simpl. rewrite app_nil_r. auto.
  - simpl andb. cbv iota. cbn [fst snd].
    assert (has_node g (atom_id ui idx a) = false) as Hf.
    { apply not_true_is_false. intros H. apply has_node_in in H. apply NoDup_remove_2 in Hnd. apply Hnd. apply in_app_iff. left. exact H. }
    rewrite (add_node_fresh g _ _ Hf).
    set (g1 := LG (gnodes g ++ [(atom_id ui idx a, atom_att a)]) (gedges g)).
    assert (node_ids g1 = node_ids g ++ [atom_id ui idx a]) as E1 by (unfold node_ids, g1; simpl; rewrite map_app; reflexivity).
    destruct (IH (N.succ idx) g1 ((idx, atom_id ui idx a) :: i2)) as (A & B & C & D).
    + rewrite E1, <- app_assoc. exact Hnd.
    + unfold g1. rewrite <- (add_node_fresh g _ _ Hf). apply gwf_add_node, W.
    + intros bi u. simpl. destruct (N.eqb bi idx).
      * intros [= <-]. apply has_node_in. rewrite E1. apply in_app_iff. right. left. reflexivity.
      * intros H. apply Hi in H. apply has_node_in in H. apply has_node_in. rewrite E1. apply in_app_iff. left. exact H.
    + cbv zeta in *. rewrite A, E1, <- app_assoc. auto.
Qed.

Lemma fold_bonds_ids tbl l : forall g : gr, (forall bi u, assoc bi tbl = Some u -> has_node g u = true) ->
  gnodes (fold_left (m2g_bond tbl) l g) = gnodes g.
Proof.
  induction l as [|[[b e] o] r IH]; intros g H; [reflexivity|]. cbn [fold_left]. unfold m2g_bond at 2.
  destruct (assoc b tbl) as [u|] eqn:Ab; [|apply IH, H]. destruct (assoc e tbl) as [v|] eqn:Ae; [|apply IH, H].
  assert (gnodes (add_edge g u v (EA (Some (OS o)) None)) = gnodes g) as E by (apply gnodes_add_edge_exist; [apply (H b u Ab)|apply (H e v Ae)]).
  rewrite IH; [exact E|]. intros bi w Hw. unfold has_node, label. rewrite E. apply (H bi w Hw).
Qed.

Theorem index_ids_no_collision (m : rmol) (ui : bool) : nodupb (atom_ids ui 0 (fst m)) = true ->
  node_ids (mol_to_graph m false ui) = atom_ids ui 0 (fst m).
Proof.
  intros Hnd. apply nodupb_NoDup in Hnd. unfold mol_to_graph.
  destruct (m2g_nodes_ids ui (fst m) 0%N g_empty [] Hnd gwf_empty) as (A & _ & _ & D); [intros bi u; discriminate|].
  cbv zeta in A, D. unfold node_ids at 1. rewrite fold_bonds_ids by exact D. exact A.
Qed.

Lemma atom_ids_length ui l : forall idx, List.length (atom_ids ui idx l) = List.length l.
Proof. induction l as [|a r IH]; intros idx; [reflexivity|]. simpl. rewrite IH. reflexivity. Qed.

(** non-vacuity, both sides: [CH3:10][CH:20]=C keeps its three atoms, [CH3:2]C (the finding's witness) has colliding ids *)
Definition ex_partial_ok : rmol := ([RAt (s2l "C") false 3 0 10; RAt (s2l "C") false 1 0 20; RAt (s2l "C") false 2 0 0], [(0%N, 1%N, 2); (1%N, 2%N, 4)]).
Example index_ids_no_collision_ex :
  nodupb (atom_ids true 0 (fst ex_partial_ok)) = true /\ node_ids (mol_to_graph ex_partial_ok false true) = [10; 20; 3]%N /\
  nodupb (atom_ids true 0 [RAt (s2l "C") false 3 0 2; RAt (s2l "C") false 3 0 0]) = false.
Proof. vm_compute. repeat split. Qed.
