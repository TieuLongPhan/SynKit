(** C12 -- non-vacuity examples for the theorems of props/C12.v (concrete graphs, results computed by vm_compute,
    then the general theorems instantiated on them).  Intermediate values are top-level Definitions and the
    statements use projections only (a destructuring let in a statement makes Qed slow). *)
From Coq Require Import List NArith ZArith Bool Arith Lia Permutation.
From SK Require Import lib.LGraph model.C12_Model proof.C12_Search proof.C12_Proof.
Import ListNotations.
Open Scope N_scope.

(** element codes: C = 1, O = 2, N = 3, wildcard/default "*" = 9; bond orders in half-units *)
Definition nd (i e : N) : N * nattr := (i, (Some e, [Some e])).
(** ga:  C1-C2(=O3)-C4      gb:  O10=C11-C12      gc:  O10=C11-C12-N13 *)
Definition ga : graph := LG [nd 1 1; nd 2 1; nd 3 2; nd 4 1] [((1,2), [Some 2%Z]); ((2,3), [Some 4%Z]); ((2,4), [Some 2%Z])].
Definition gb : graph := LG [nd 10 2; nd 11 1; nd 12 1] [((10,11), [Some 4%Z]); ((11,12), [Some 2%Z])].
Definition gc : graph := LG [nd 10 2; nd 11 1; nd 12 1; nd 13 3]
                            [((10,11), [Some 4%Z]); ((11,12), [Some 2%Z]); ((12,13), [Some 2%Z])].

Lemma ga_nodup : NoDup (node_ids ga).
Proof. now apply nodupb_spec. Qed.
Lemma gb_nodup : NoDup (node_ids gb).
Proof. now apply nodupb_spec. Qed.
Lemma gc_nodup : NoDup (node_ids gc).
Proof. now apply nodupb_spec. Qed.

Definition rab := find_common_subgraph [9] false 9 ga gb true.   (* first graph larger: orientation swap *)
Definition rba := find_common_subgraph [9] false 9 gb ga true.
Definition rac := find_common_subgraph [9] false 9 ga gc true.   (* equal sizes, maximum (3) below min(4,4) *)
Definition rab_all := find_common_subgraph [9] false 9 ga gb false.

Example computed_results :
  r_pattern_is_g1 rab = false /\ r_last rab = 3%nat /\
  get_mappings PatternToHost rab = [[(10, 3); (11, 2); (12, 1)]; [(10, 3); (11, 2); (12, 4)]] /\
  get_mappings G1toG2 rab = [[(3, 10); (2, 11); (1, 12)]; [(3, 10); (2, 11); (4, 12)]] /\
  get_mappings G2toG1 rab = [[(10, 3); (11, 2); (12, 1)]; [(10, 3); (11, 2); (12, 4)]] /\
  r_last rac = 3%nat /\ r_tried rac = 5%nat /\
  get_mappings G1toG2 rac = [[(1, 12); (2, 11); (3, 10)]; [(2, 11); (3, 10); (4, 12)]] /\
  map (@length (N * N)) (r_maps rab_all) = [3; 3; 2; 2; 2; 2; 2; 2; 2; 1; 1; 1; 1; 1; 1; 1]%nat.
Proof. repeat apply conj; vm_compute; reflexivity. Qed.

(** C12_valid: the premise "m is returned" holds for a concrete m, so the conclusion is a real statement *)
Example valid_nonvacuous :
  common_induced (node_match [9]) edge_match ga gb [(3, 10); (2, 11); (1, 12)] /\
  common_induced (node_match [9]) edge_match gb ga [(10, 3); (11, 2); (12, 4)].
Proof.
  split.
  - apply (proj1 (fcs_valid [9] false 9 ga gb ga_nodup gb_nodup true [(3, 10); (2, 11); (1, 12)])).
    vm_compute. now left.
  - apply (proj1 (proj2 (fcs_valid [9] false 9 ga gb ga_nodup gb_nodup true [(10, 3); (11, 2); (12, 4)]))).
    vm_compute. right. now left.
Qed.

(** ... and the conclusion excludes wrong mappings: two atoms sent to the same host atom (12) are not common_induced *)
Example valid_discriminates : ~ common_induced (node_match [9]) edge_match ga gb [(3, 10); (2, 11); (1, 12); (4, 12)].
Proof.
  intros (_ & H & _). apply nodupb_spec in H. discriminate H.
Qed.

(** a C-C single bond mapped onto a C=C double bond: presence is preserved, the order is not *)
Definition gd : graph := LG [nd 20 1; nd 21 1] [((20,21), [Some 4%Z])].
Example valid_discriminates_order : ~ common_induced (node_match [9]) edge_match ga gd [(1, 20); (2, 21)].
Proof.
  intros (_ & _ & _ & H). specialize (H 1 20 2 21 (or_introl eq_refl) (or_intror (or_introl eq_refl))).
  vm_compute in H. assert (E : false = true) by (apply H; discriminate). discriminate E.
Qed.

(** C12_maximum: no common induced mapping of ga and gc has more than 3 pairs although both have 4 atoms; every
    maximum one is returned up to the order of its pairs (here: a maximum mapping listed in another order) *)
Example maximum_nonvacuous :
  (forall m, common_induced (node_match [9]) edge_match ga gc m -> (length m <= 3)%nat) /\
  (exists m', In m' (get_mappings G1toG2 rac) /\ Permutation [(3, 10); (1, 12); (2, 11)] m').
Proof.
  destruct (fcs_maximum [9] false 9 ga gc ga_nodup gc_nodup) as ((S1 & S2 & S3 & _) & _).
  split; [exact S2|].
  apply S3; [|reflexivity|vm_compute; repeat constructor].
  apply (ci_perm _ _ _ _ [(1, 12); (2, 11); (3, 10)]).
  - apply perm_trans with [(1, 12); (3, 10); (2, 11)]; [apply perm_skip, perm_swap|apply perm_swap].
  - apply (S1 [(1, 12); (2, 11); (3, 10)]). vm_compute. now left.
Qed.

Example all_sizes_nonvacuous :
  exists m', In m' (get_mappings G1toG2 rab_all) /\ Permutation [(4, 12); (2, 11)] m'.
Proof.
  destruct (fcs_all [9] false 9 ga gb ga_nodup gb_nodup) as ((A1 & A2) & _).
  apply A2; [|simpl; lia].
  apply (ci_perm _ _ _ _ [(2, 11); (4, 12)]); [apply perm_swap|].
  apply (A1 [(2, 11); (4, 12)]). apply (proj1 (seen_spec _ _)). vm_compute. reflexivity.
Qed.

Example nonempty_iff_nonvacuous :
  get_mappings G1toG2 rab <> [] /\
  get_mappings G1toG2 (find_common_subgraph [9] false 9 ga (LG [nd 7 3] []) true) = [].
Proof. split; [vm_compute; discriminate|vm_compute; reflexivity]. Qed.

Example directions_nonvacuous :
  get_mappings G2toG1 rab = map invert_mapping (get_mappings G1toG2 rab) /\
  get_mappings G1toG2 rab = get_mappings G2toG1 rba /\
  get_mappings G1toG2 rab <> get_mappings G2toG1 rab.
Proof.
  split; [exact (proj1 (directions_inverse rab))|]. split.
  - apply (orientation_swap [9] false 9 ga gb true). vm_compute. discriminate.
  - vm_compute. discriminate.
Qed.

(** wildcard pruning: the "*" atom of the first graph is removed before the search *)
Definition gw : graph := LG [nd 1 1; nd 2 9] [((1,2), [Some 2%Z])].
Example prune_nonvacuous :
  r_maps (find_common_subgraph [9] true 9 gw gb true) = [[(1, 11)]; [(1, 12)]] /\
  r_tried (find_common_subgraph [9] true 9 gw gb true) = 1%nat /\
  r_tried (find_common_subgraph [9] false 9 gw gb true) = 3%nat.
Proof. repeat apply conj; vm_compute; reflexivity. Qed.

(** MTG copy: no orientation swap (G1 is the pattern although it is larger) *)
Example mtg_nonvacuous :
  find_common_subgraph_mtg [9] ga gb true = ([[(1, 12); (2, 11); (3, 10)]; [(2, 11); (3, 10); (4, 12)]], 3%nat, 4%nat) /\
  (forall m, common_induced (node_match [9]) edge_match_mtg ga gb m -> (length m <= 3)%nat).
Proof.
  split; [vm_compute; reflexivity|].
  destruct (mtg_spec [9] ga gb ga_nodup gb_nodup) as ((_ & S2 & _) & _). exact S2.
Qed.

(** C12_level_exact / C12_search_maximum: the levels of the pair (ga, gc): level 4 is empty, level 3 holds the two maximum
    mappings; the search returns level 3 and reports that 5 = C(4,4) + C(4,3) subsets were tried *)
Example level_nonvacuous :
  level (node_match [9]) edge_match ga gc 4 = [] /\
  level (node_match [9]) edge_match ga gc 3 = [[(1, 12); (2, 11); (3, 10)]; [(2, 11); (3, 10); (4, 12)]] /\
  (forall m, In m (level (node_match [9]) edge_match ga gc 3) ->
     common_induced (node_match [9]) edge_match ga gc m /\ length m = 3%nat) /\
  search_subgraphs (node_match [9]) edge_match ga gc true =
    ([[(1, 12); (2, 11); (3, 10)]; [(2, 11); (3, 10); (4, 12)]], 3%nat, 5%nat).
Proof.
  split; [vm_compute; reflexivity|]. split; [vm_compute; reflexivity|].
  split; [exact (level_sound (node_match [9]) edge_match ga gc ga_nodup 3)|vm_compute; reflexivity].
Qed.

Example matchers_nonvacuous :
  node_match [9] (Some (Some 1, [Some 1])) (Some (Some 1, [Some 1])) = true /\
  node_match [9] (Some (None, [None])) (Some (Some 9, [Some 9])) = true /\       (* missing label = default "*" *)
  node_match [9] (Some (Some 1, [Some 1])) (Some (Some 2, [Some 2])) = false /\
  edge_match [None] [None] = true /\ edge_match [None] [Some 2%Z] = false /\ edge_match_mtg [None] [None] = true /\ edge_match_mtg [None] [Some 2%Z] = false.
Proof. repeat split; reflexivity. Qed.
