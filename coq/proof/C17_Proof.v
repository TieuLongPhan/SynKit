(** C17 — proofs about model/C17_Model.v: string order, stable insertion sort, species / reaction order,
    build_S entries, agreement with the incidence matrix, the verdict logic of is_conservative / is_consistent
    (soundness under premises on the numerics; the completeness direction: conditional for is_consistent, refuted
    for is_conservative).  Style: stdlib lists. *)
From Coq Require Import List ZArith Bool Lia Permutation Sorting.Sorted.
From SK Require Import lib.IRSortKeys lib.C17_Farkas model.C17_Model.
Import ListNotations.

(** [strleb] is the lexicographic order over [N.compare] *)
Lemma strleb_cons x a y b :
  strleb (x :: a) (y :: b) = match (x ?= y)%N with Lt => true | Eq => strleb a b | Gt => false end.
Proof. simpl. rewrite N.ltb_compare, N.eqb_compare. destruct (x ?= y)%N; reflexivity. Qed.

Lemma strleb_total a : forall b, strleb a b = true \/ strleb b a = true.
Proof.
  induction a as [|x a IH]; intros [|y b]; auto.
  rewrite !strleb_cons, (N.compare_antisym x y). destruct (x ?= y)%N; simpl; auto.
Qed.
Lemma strleb_antisym a : forall b, strleb a b = true -> strleb b a = true -> a = b.
Proof.
  induction a as [|x a IH]; intros [|y b]; try discriminate; auto.
  rewrite !strleb_cons, (N.compare_antisym x y). destruct (N.compare_spec x y); try discriminate.
  intros. f_equal; auto.
Qed.
Lemma strleb_trans a : forall b c, strleb a b = true -> strleb b c = true -> strleb a c = true.
Proof.
  induction a as [|x a IH]; intros [|y b] [|z c]; try discriminate; auto.
  rewrite !strleb_cons.
  destruct (N.compare_spec x y) as [->|L1|]; [| |discriminate]; destruct (N.compare_spec y z) as [->|L2|]; try discriminate.
  - apply IH.
  - reflexivity.
  - intros _ _. now rewrite (proj2 (N.compare_lt_iff _ _) L1).
  - intros _ _. now rewrite (proj2 (N.compare_lt_iff _ _) (N.lt_trans _ _ _ L1 L2)).
Qed.
Lemma strleb_refl a : strleb a a = true.
Proof. destruct (strleb_total a a); auto. Qed.

Lemma streqb_eq a : forall b, streqb a b = true <-> a = b.
Proof.
  induction a as [|x a IH]; intros [|y b]; simpl; split; try discriminate; auto.
  - intros H. apply andb_prop in H. destruct H as [H1 H2]. apply N.eqb_eq in H1. apply IH in H2. congruence.
  - intros [= -> ->]. rewrite N.eqb_refl. apply IH. reflexivity.
Qed.
Lemma streqb_refl a : streqb a a = true.
Proof. apply streqb_eq. reflexivity. Qed.
Lemma streqb_neq a b : a <> b -> streqb a b = false.
Proof. intros H. destruct (streqb a b) eqn:E; auto. apply streqb_eq in E. contradiction. Qed.

Section ISortFacts.
Variable A : Type.
Variable leb : A -> A -> bool.
Hypothesis leb_total : forall a b, leb a b = true \/ leb b a = true.
Hypothesis leb_trans : forall a b c, leb a b = true -> leb b c = true -> leb a c = true.

Lemma insert_perm x l : Permutation (insert leb x l) (x :: l).
Proof.
  induction l as [|y l IH]; simpl; auto. destruct (leb x y); auto.
  eapply perm_trans; [apply perm_skip; exact IH | apply perm_swap].
Qed.
Lemma isort_perm l : Permutation (isort leb l) l.
Proof.
  induction l as [|x l IH]; simpl; auto.
  eapply perm_trans; [apply insert_perm | apply perm_skip; exact IH].
Qed.
Lemma isort_length l : length (isort leb l) = length l.
Proof. apply Permutation_length, isort_perm. Qed.

(** Stability.  [R] is the order the input already has (for Python: the position in the input list); the result is
    sorted by the key and, among equal keys, still ordered by [R]. *)
Variable R : A -> A -> Prop.
Definition keyed (a b : A) : Prop := leb a b = true /\ (leb b a = true -> R a b).

Lemma insert_keyed x l : Forall (R x) l -> StronglySorted keyed l -> StronglySorted keyed (insert leb x l).
Proof.
  intros HR HS. induction HS as [|y l HS IH Hy]; simpl; [repeat constructor|].
  inversion HR as [|? ? Rxy HR']; subst. destruct (leb x y) eqn:E.
  - constructor; [now constructor|]. constructor; [now split|].
    rewrite Forall_forall in *. intros z I. split; [|auto]. apply (leb_trans _ y); [exact E|apply Hy, I].
  - constructor; [auto|]. apply (Permutation_Forall (Permutation_sym (insert_perm x l))).
    constructor; [|exact Hy]. split; [destruct (leb_total y x)|]; congruence.
Qed.

Lemma isort_keyed l : StronglySorted R l -> StronglySorted keyed (isort leb l).
Proof.
  induction 1 as [|x l HS IH Hx]; simpl; [constructor|].
  apply insert_keyed; auto. exact (Permutation_Forall (Permutation_sym (isort_perm l)) Hx).
Qed.

Lemma isort_sorted_id l : StronglySorted (fun a b => leb a b = true) l -> isort leb l = l.
Proof.
  induction 1 as [|x l HS IH Hx]; simpl; auto. rewrite IH. destruct Hx as [|y l Hy _]; simpl; auto. now rewrite Hy.
Qed.
End ISortFacts.

Notation ssorted_str := (@ssorted str strleb).

Lemma ssorted_strongly l : ssorted_str l -> StronglySorted (fun a b => strleb a b = true) l.
Proof.
  induction 1 as [|x l HS IH Hx]; constructor; auto. apply Forall_forall. intros y I.
  specialize (Hx y I). unfold ltb in Hx. apply andb_prop in Hx. tauto.
Qed.

Lemma species_set_sorted net iso : ssorted_str (species_set net iso).
Proof. apply sort_dedup_sorted; [apply strleb_total | apply strleb_trans | apply strleb_antisym]. Qed.

Lemma species_set_in net iso s :
  In s (species_set net iso) <-> (exists e, In e net /\ In s (rxn_species e)) \/ In s iso.
Proof.
  unfold species_set. rewrite (sort_dedup_in strleb strleb_antisym), in_app_iff, in_flat_map. tauto.
Qed.

Lemma species_order_eq net iso : species_order net iso = species_set net iso.
Proof. unfold species_order. apply isort_sorted_id. apply ssorted_strongly. apply species_set_sorted. Qed.

Lemma ssorted_NoDup l : ssorted_str l -> NoDup l.
Proof.
  induction 1 as [|x l HS IH Hx]; constructor; auto. intros I. specialize (Hx x I).
  unfold ltb in Hx. rewrite strleb_refl in Hx. discriminate.
Qed.

Definition strlt (a b : str) : Prop := strleb a b = true /\ a <> b.
(** the column order: by rule label, ties by edge id *)
Definition col_order (a b : rxn) : Prop :=
  strlt (rrule a) (rrule b) \/ (rrule a = rrule b /\ strleb (rid a) (rid b) = true).

Lemma edges_sorted_perm net : Permutation (edges_sorted net) net.
Proof. apply isort_perm. Qed.
Lemma edges_sorted_in net e : In e (edges_sorted net) <-> In e net.
Proof. split; apply Permutation_in; [|apply Permutation_sym]; apply edges_sorted_perm. Qed.
Lemma reaction_order_perm net : Permutation (reaction_order net) net.
Proof. eapply perm_trans; [apply isort_perm | apply edges_sorted_perm]. Qed.
Lemma reaction_order_in net e : In e (reaction_order net) <-> In e net.
Proof. split; apply Permutation_in; [|apply Permutation_sym]; apply reaction_order_perm. Qed.

Lemma StronglySorted_impl {A} (P Q : A -> A -> Prop) l : (forall a b, P a b -> Q a b) -> StronglySorted P l -> StronglySorted Q l.
Proof.
  intros H. induction 1 as [|x l HS IH Hx]; constructor; auto. exact (Forall_impl _ (H x) Hx).
Qed.

Lemma StronglySorted_True {A} (l : list A) : StronglySorted (fun _ _ => True) l.
Proof. induction l; constructor; auto. apply Forall_forall. auto. Qed.

Lemma edges_sorted_by_id net : StronglySorted (fun a b => strleb (rid a) (rid b) = true) (edges_sorted net).
Proof.
  unfold edges_sorted.
  apply StronglySorted_impl with (P := keyed rxn (fun a b => strleb (rid a) (rid b)) (fun _ _ => True)).
  - intros a b K. exact (proj1 K).
  - apply isort_keyed.
    + intros; apply strleb_total.
    + intros a b c; apply strleb_trans.
    + apply StronglySorted_True.
Qed.

Lemma reaction_order_sorted net : StronglySorted col_order (reaction_order net).
Proof.
  unfold reaction_order.
  apply StronglySorted_impl with (P := keyed rxn (fun a b => strleb (rrule a) (rrule b)) (fun a b => strleb (rid a) (rid b) = true)).
  - intros a b [H1 H2]. destruct (strleb (rrule b) (rrule a)) eqn:E.
    + right. split; auto using strleb_antisym.
    + left. split; auto. intros Eq. rewrite Eq, strleb_refl in E. discriminate.
  - apply isort_keyed.
    + intros; apply strleb_total.
    + intros a b c; apply strleb_trans.
    + apply edges_sorted_by_id.
Qed.

(** amount of species [s] on a reaction side (for dict sides: its stoichiometric coefficient, 0 if absent) *)
Definition amount (s : str) (sd : side) : Z :=
  fold_right (fun p acc => if streqb (fst p) s then (snd p + acc)%Z else acc) 0%Z sd.
Definition produced (s : str) (e : rxn) : Z := amount s (rrhs e).
Definition consumed (s : str) (e : rxn) : Z := amount s (rlhs e).

Lemma entry_app ro l1 l2 s e : entry ro (l1 ++ l2) s e = (entry ro l1 s e + entry ro l2 s e)%Z.
Proof.
  unfold entry. induction l1 as [|a l1 IH]; simpl; [reflexivity|].
  destruct (_ && _ && _); rewrite IH; [apply Z.add_assoc|reflexivity].
Qed.

Lemma entry_side ro ro' id' sd s id :
  entry ro (map (fun p => Arc (fst p) id' (snd p) ro') sd) s id = if streqb id' id && role_eqb ro' ro then amount s sd else 0%Z.
Proof.
  unfold entry, amount. induction sd as [|p sd IH]; simpl; [destruct (_ && _); reflexivity|].
  rewrite IH, <- andb_assoc. destruct (streqb id' id && role_eqb ro' ro), (streqb (fst p) s); reflexivity.
Qed.

Lemma entry_arcs_of ro r s id :
  entry ro (arcs_of r) s id =
  if streqb (rid r) id then match ro with Reactant => consumed s r | Product => produced s r end else 0%Z.
Proof.
  unfold arcs_of, consumed, produced. rewrite entry_app, !entry_side.
  destruct (streqb (rid r) id), ro; simpl; lia.
Qed.

Lemma entry_flat_other ro es s id : (forall r, In r es -> rid r <> id) -> entry ro (flat_map arcs_of es) s id = 0%Z.
Proof.
  induction es as [|r es IH]; intros H; simpl; auto.
  rewrite entry_app, entry_arcs_of, streqb_neq, IH by auto using in_eq, in_cons. reflexivity.
Qed.

Lemma entry_flat ro es s e : NoDup (map rid es) -> In e es ->
  entry ro (flat_map arcs_of es) s (rid e) = match ro with Reactant => consumed s e | Product => produced s e end.
Proof.
  induction es as [|r es IH]; intros ND I; [destruct I|]. simpl. rewrite entry_app, entry_arcs_of.
  inversion ND as [|x l Hn ND']; subst. destruct I as [->|I].
  - rewrite streqb_refl, entry_flat_other; [lia|].
    intros r' I' E. apply Hn. rewrite <- E. apply in_map. exact I'.
  - rewrite streqb_neq, IH; auto.
    intros E. apply Hn. rewrite E. apply in_map. exact I.
Qed.

Lemma NoDup_rid_perm l l' : Permutation l l' -> NoDup (map rid l') -> NoDup (map rid l).
Proof. intros P H. eapply Permutation_NoDup; [apply Permutation_map, Permutation_sym, P | exact H]. Qed.

Lemma entry_bip ro net s e : NoDup (map rid net) -> In e net ->
  entry ro (bip_arcs net) s (rid e) = match ro with Reactant => consumed s e | Product => produced s e end.
Proof.
  intros ND I. unfold bip_arcs. apply entry_flat.
  - eapply NoDup_rid_perm; [apply edges_sorted_perm | exact ND].
  - apply edges_sorted_in, I.
Qed.

Lemma bip_arcs_in net a : In a (bip_arcs net) ->
  exists e, In e net /\ In (a_species a) (rxn_species e) /\ a_rxn a = rid e.
Proof.
  unfold bip_arcs, arcs_of, rxn_species. rewrite in_flat_map. intros (e & Ie & Ia). exists e.
  split; [apply edges_sorted_in, Ie|].
  apply in_app_or in Ia. destruct Ia as [Ia|Ia]; apply in_map_iff in Ia; destruct Ia as (p & <- & Ip); simpl;
    split; auto using in_or_app, in_map.
Qed.

Lemma vsub_map {A} (f g : A -> Z) l : vsub (map f l) (map g l) = map (fun e => (f e - g e)%Z) l.
Proof. unfold vsub. induction l as [|a l IH]; simpl; auto. f_equal. exact IH. Qed.

Lemma msub_map {A B} (f g : A -> B -> Z) (rows : list A) (cols : list B) :
  msub (map (fun s => map (f s) cols) rows) (map (fun s => map (g s) cols) rows)
  = map (fun s => map (fun e => (f s e - g s e)%Z) cols) rows.
Proof. unfold msub. induction rows as [|a rows IH]; simpl; auto. rewrite vsub_map. f_equal. exact IH. Qed.

Lemma build_S_eq net iso :
  build_S net iso = map (fun s => map (fun e => (entry Product (bip_arcs net) s (rid e) - entry Reactant (bip_arcs net) s (rid e))%Z)
                                      (reaction_order net)) (species_order net iso).
Proof. unfold build_S, S_plus, S_minus, S_side. apply msub_map. Qed.

Lemma nth_map2 {A B} (F : A -> B -> Z) rows cols i j s e :
  nth_error rows i = Some s -> nth_error cols j = Some e ->
  nth j (nth i (map (fun s => map (F s) cols) rows) []) 0%Z = F s e.
Proof.
  intros Hi Hj. apply (map_nth_error (fun s => map (F s) cols)) in Hi. apply (map_nth_error (F s)) in Hj.
  rewrite (nth_error_nth _ _ [] Hi). exact (nth_error_nth _ _ 0%Z Hj).
Qed.

Lemma reaction_order_nth_in net j e : nth_error (reaction_order net) j = Some e -> In e net.
Proof. intros H. apply reaction_order_in, (nth_error_In _ _ H). Qed.

Lemma S_side_entry ro net iso : NoDup (map rid net) ->
  forall i j s e, nth_error (species_order net iso) i = Some s -> nth_error (reaction_order net) j = Some e ->
  nth j (nth i (S_side ro net iso) []) 0%Z = match ro with Reactant => consumed s e | Product => produced s e end.
Proof.
  intros ND i j s e Hi Hj. unfold S_side.
  erewrite nth_map2 by eassumption.
  apply entry_bip; eauto using reaction_order_nth_in.
Qed.

Theorem S_entries net iso : NoDup (map rid net) ->
  forall i j s e, nth_error (species_order net iso) i = Some s -> nth_error (reaction_order net) j = Some e ->
  nth j (nth i (build_S net iso) []) 0%Z = (produced s e - consumed s e)%Z.
Proof.
  intros ND i j s e Hi Hj. rewrite build_S_eq.
  erewrite nth_map2 by eassumption.
  rewrite !entry_bip by eauto using reaction_order_nth_in. reflexivity.
Qed.

Theorem S_shape net iso :
  length (build_S net iso) = length (species_order net iso) /\
  Forall (fun row => length row = length (reaction_order net)) (build_S net iso) /\
  length (reaction_order net) = length net.
Proof.
  rewrite build_S_eq. split; [apply map_length|]. split.
  - apply Forall_map, Forall_forall. intros s _. apply map_length.
  - apply Permutation_length, reaction_order_perm.
Qed.

Lemma side_acc_amount sign s sd : forall acc, side_acc sign s sd acc = (acc + sign * amount s sd)%Z.
Proof.
  unfold side_acc, amount. induction sd as [|p sd IH]; intros acc; simpl; [lia|].
  rewrite IH. destruct (streqb (fst p) s); lia.
Qed.

Theorem incidence_entries net iso :
  forall i j s e, nth_error (species_set net iso) i = Some s -> nth_error (edges_sorted net) j = Some e ->
  nth j (nth i (incidence net iso) []) 0%Z = (produced s e - consumed s e)%Z.
Proof.
  intros i j s e Hi Hj. unfold incidence.
  erewrite nth_map2 by eassumption.
  rewrite !side_acc_amount. unfold produced, consumed. lia.
Qed.

Theorem S_incidence net iso : NoDup (map rid net) ->
  species_order net iso = species_set net iso /\
  Permutation (reaction_order net) (edges_sorted net) /\
  forall i j j' s e, nth_error (species_order net iso) i = Some s ->
    nth_error (reaction_order net) j = Some e -> nth_error (edges_sorted net) j' = Some e ->
    nth j (nth i (build_S net iso) []) 0%Z = nth j' (nth i (incidence net iso) []) 0%Z.
Proof.
  intros ND. split; [apply species_order_eq|]. split; [apply isort_perm|].
  intros i j j' s e Hi Hj Hj'. rewrite (S_entries net iso ND i j s e Hi Hj).
  rewrite species_order_eq in Hi. rewrite (incidence_entries net iso i j' s e Hi Hj'). reflexivity.
Qed.

Lemma conservative_verdict_sound k nm n S :
  (nm_scanL nm = true -> conservative n S) -> (nm_lpL nm = true -> conservative n S) ->
  conservative_verdict k nm = true -> conservative n S.
Proof.
  unfold conservative_verdict. intros H1 H2. destruct (k =? 0)%nat; [discriminate|].
  destruct (nm_scanL nm); auto. destruct (k =? 1)%nat; [discriminate|]. auto.
Qed.

Lemma consistent_verdict_sound kr nm n S :
  (nm_lpR nm = 0%nat -> consistent n S) -> (nm_scanR nm = true -> consistent n S) ->
  consistent_verdict kr nm = Some true -> consistent n S.
Proof.
  unfold consistent_verdict. intros H1 H2. destruct (nm_lpR nm) as [|[|?]]; auto; try discriminate.
  destruct (kr =? 0)%nat; [discriminate|]. destruct (nm_scanR nm); [auto|discriminate].
Qed.

(** the verdict is True as soon as the LP answered "success with a small residual" — that HiGHS does so on every feasible problem is
    the solver premise (compared per input with the certified truth, never proved) *)
Lemma consistent_verdict_lp_ok kr nm : nm_lpR nm = 0%nat -> consistent_verdict kr nm = Some true.
Proof. unfold consistent_verdict. intros ->. reflexivity. Qed.

(** None (inconclusive) is answered exactly when the LP gave no usable answer, the right kernel is non-trivial and no basis column
    is sign definite *)
Lemma consistent_verdict_none kr nm :
  consistent_verdict kr nm = None <-> (2 <= nm_lpR nm)%nat /\ kr <> 0%nat /\ nm_scanR nm = false.
Proof.
  unfold consistent_verdict. destruct (nm_lpR nm) as [|[|k]]; [split; [discriminate|lia] ..|].
  destruct (Nat.eqb_spec kr 0) as [->|Hk]; [split; [discriminate|now intros (_ & H & _)]|].
  destruct (nm_scanR nm); split; [discriminate | now intros (_ & _ & H) | | reflexivity].
  intros _. repeat split; [lia|exact Hk].
Qed.

(** The completeness half fails for the code as it is: A + B <-> C is conservative (law (1,1,2)); B below is a genuine
    basis of its left kernel (both columns are laws, neither is sign definite), the LP the code poses over it,
    min 1^T a subject to B a >= eps (a free; eps scaled to 1 here), is feasible and UNBOUNDED (direction d), a correct
    solver reports "unbounded", the code reads that as "no law" and answers False. *)
Definition net_ABC : list rxn :=
  [ ([114; 95; 49]%N, [114]%N, [([65]%N, 1%Z); ([66]%N, 1%Z)], [([67]%N, 1%Z)]);
    ([114; 95; 50]%N, [114]%N, [([67]%N, 1%Z)], [([65]%N, 1%Z); ([66]%N, 1%Z)]) ].
Definition B_ABC : list (list Z) := [[-1; 0]; [0; -1]; [-1; -1]]%Z.      (* rows = species A, B, C; columns = two laws *)

Lemma conservative_complete_refuted :
  let S := build_S net_ABC [] in
  conservative 2 S /\
  (forall j, (j < 2)%nat -> all_zero (vecmat 2 (col j B_ABC) S) = true) /\
  (forall j, (j < 2)%nat -> all_pos (col j B_ABC) = false /\ all_pos (map Z.opp (col j B_ABC)) = false) /\
  (exists a0, forallb (fun t => 1 <=? t)%Z (matvec B_ABC a0) = true) /\
  (exists d, all_nonneg (matvec B_ABC d) = true /\ (fold_right Z.add 0 d < 0)%Z) /\
  conservative_verdict 2 (Num false false 0 false) = false.
Proof.
  split; [apply (@pos_cert_sound 2 _ [1; 1; 2]%Z); vm_compute; reflexivity|].
  split; [intros [|[|j]] H; [vm_compute; reflexivity ..|lia]|].
  split; [intros [|[|j]] H; [vm_compute; auto ..|lia]|].
  split; [exists [-1; -1]%Z; vm_compute; reflexivity|].
  split; [exists [-1; -1]%Z; vm_compute; split; [reflexivity|reflexivity]|].
  reflexivity.
Qed.

Example ex_S_ABC : build_S net_ABC [] = [[-1; 1]; [-1; 1]; [1; -1]]%Z.
Proof. vm_compute. reflexivity. Qed.
Example ex_order : map rrule (reaction_order
    [ ([97]%N, [114]%N, [([65]%N, 1%Z)], [([66]%N, 1%Z)]); ([98]%N, [113]%N, [([66]%N, 2%Z)], [([65]%N, 1%Z)]) ]) = [[113]%N; [114]%N].
Proof. vm_compute. reflexivity. Qed.
Example ex_NoDup_ABC : NoDup (map rid net_ABC).
Proof. vm_compute. constructor; [intros [H|[]]; discriminate|]. constructor; [intros []|constructor]. Qed.
Example ex_S_entry : nth 0 (nth 2 (build_S net_ABC []) []) 0%Z = 1%Z.     (* C is produced by r_1 *)
Proof. vm_compute. reflexivity. Qed.
Example ex_incidence_ABC : incidence net_ABC [] = [[-1; 1]; [-1; 1]; [1; -1]]%Z.
Proof. vm_compute. reflexivity. Qed.
Example ex_verdict_sound_nonvacuous : conservative_verdict 2 (Num false true 0 false) = true.
Proof. reflexivity. Qed.
