(** C10 — proofs: the light-weight builder MolToGraph.mol_to_graph(mol, light_weight=True) (one loop, every atom
    adds its own bonds) builds the same graph — node dictionaries and bond dictionaries — as MolToGraph.transform. *)
From Coq Require Import List NArith ZArith Bool Lia.
From SK Require Import lib.LGraph lib.StrJoin model.C10_Model proof.C10_Views proof.C10_Build proof.C10_Copy
  proof.C10_G2MSpec proof.C10_MolGraph.
Import ListNotations.
Local Open Scope Z_scope.

Lemma fold_estep_label_cases d eo : forall (g : gr) n,
  label (fold_left (estep d) eo g) n = label g n \/ (label g n = None /\ label (fold_left (estep d) eo g) n = Some na_empty).
Proof.
  induction eo as [|[u v] r IH]; intros g n; [left; reflexivity|]. simpl.
  destruct (IH (estep d g (u, v)) n) as [E|[E1 E2]]; unfold estep in *; simpl in *; destruct (d u v) as [y|].
  - rewrite E, label_add_edge. destruct (N.eqb n u || N.eqb n v); [|left; reflexivity].
    destruct (label g n); [left; reflexivity|right; auto].
  - left. exact E.
  - rewrite label_add_edge in E1. destruct (N.eqb n u || N.eqb n v); [discriminate|]. right. auto.
  - right. auto.
Qed.

Lemma na_update_att a : na_update (atom_att a) na_empty = atom_att a.
Proof. reflexivity. Qed.

Section Light.
Variable m : rmol.
Variable ab : list (list (N * Z)).
Hypothesis Hwf : wf_mol m = true.
Let atoms := fst m.
Let bonds := snd m.
Let natoms := N.of_nat (List.length atoms).
(** [ab] lists, for every atom, exactly its bonds (atom.GetBonds()) *)
Hypothesis Hs : forall i bs nb o, nth_error ab i = Some bs -> In (nb, o) bs -> bond_find (N.of_nat i) nb bonds = Some o.
Hypothesis Hc : forall i nb o, bond_find i nb bonds = Some o -> exists bs, nth_error ab (N.to_nat i) = Some bs /\ In (nb, o) bs.

Lemma bond_lt i nb o : bond_find i nb bonds = Some o -> (i < natoms)%N /\ (nb < natoms)%N.
Proof. intros F. destruct (bond_find_lt m Hwf i nb o F) as (H1 & H2 & _). auto. Qed.
Lemma nth_atom_lt k : (k < natoms)%N -> exists a, nth_atom atoms k = Some a.
Proof.
  intros H. unfold nth_atom. destruct (nth_error atoms (N.to_nat k)) eqn:E; [eauto|]. apply nth_error_None in E. unfold natoms in H. lia.
Qed.

Definition pairs_of (idx : N) (bs : list (N * Z)) : list (N * N) := map (fun b : N * Z => (N.succ idx, N.succ (fst b))) bs.

Lemma md_bond idx nb o : bond_find idx nb bonds = Some o -> md m (N.succ idx) (N.succ nb) = Some (EA (Some (OS o)) None).
Proof.
  intros F. destruct (bond_lt idx nb o F) as [Hi Hn]. rewrite (md_of m idx nb Hi Hn). fold bonds. rewrite F. reflexivity.
Qed.

Lemma inner_fold idx bs (g : gr) : (forall nb o, In (nb, o) bs -> bond_find idx nb bonds = Some o) ->
  fold_left (light_bond atoms false false (N.succ idx)) bs g = fold_left (estep (md m)) (pairs_of idx bs) g.
Proof.
  intros H. unfold pairs_of. rewrite fold_left_map'. apply fold_left_ext_in. intros acc [nb o] Hin.
  pose proof (H nb o Hin) as F. destruct (bond_lt idx nb o F) as [_ Hnb]. destruct (nth_atom_lt nb Hnb) as [a Ea].
  unfold light_bond, estep. simpl. rewrite Ea, (md_bond idx nb o F). reflexivity.
Qed.

Record LInv (idx : N) (g : gr) : Prop := {
  li_done : forall k a, (k < idx)%N -> nth_atom atoms k = Some a -> label g (N.succ k) = Some (atom_att a);
  li_cases : forall n, label g n = None \/ label g n = Some na_empty \/
                       exists k a, n = N.succ k /\ (k < idx)%N /\ nth_atom atoms k = Some a /\ label g n = Some (atom_att a);
  li_rng : forall n, label g n <> None -> n <> 0%N /\ (N.pred n < natoms)%N;
  li_adj : forall u v, adj g u v = None \/ adj g u v = md m u v;
  li_bonds : forall k bs nb o, (N.of_nat k < idx)%N -> nth_error ab k = Some bs -> In (nb, o) bs ->
             adj g (N.succ (N.of_nat k)) (N.succ nb) = md m (N.succ (N.of_nat k)) (N.succ nb) }.

Lemma LInv_step idx g a bs : LInv idx g -> nth_atom atoms idx = Some a -> nth_error ab (N.to_nat idx) = Some bs ->
  LInv (N.succ idx) (fold_left (light_bond atoms false false (N.succ idx)) bs (add_node g (N.succ idx) (atom_att a))).
Proof.
  intros I Ha Hb.
  assert (forall nb o, In (nb, o) bs -> bond_find idx nb bonds = Some o) as Hbs.
  { intros nb o Hin. pose proof (Hs _ _ nb o Hb Hin) as F. rewrite N2Nat.id in F. exact F. }
  rewrite (inner_fold idx bs _ Hbs).
  set (g1 := add_node g (N.succ idx) (atom_att a)). set (g2 := fold_left (estep (md m)) (pairs_of idx bs) g1).
  assert (idx < natoms)%N as Hidx.
  { unfold nth_atom in Ha. assert (nth_error atoms (N.to_nat idx) <> None) as NE by congruence. apply nth_error_Some in NE. unfold natoms. lia. }
  assert (label g1 (N.succ idx) = Some (atom_att a)) as L1.
  { unfold g1. rewrite label_add_node, N.eqb_refl. destruct (li_cases _ _ I (N.succ idx)) as [E|[E|(k & a' & E1 & E2 & _)]]; rewrite ?E; try reflexivity. lia. }
  assert (forall n, n <> N.succ idx -> label g1 n = label g n) as L1o.
  { intros n Hn. unfold g1. rewrite label_add_node. destruct (N.eqb_spec n (N.succ idx)); [contradiction|reflexivity]. }
  assert (forall u v, adj g1 u v = adj g u v) as A1 by (intros; apply adj_add_node).
  assert (forall u v, adj g2 u v = if pmatch u v (pairs_of idx bs) then md m u v else adj g u v) as A2.
  { intros u v. unfold g2. rewrite (fold_estep_adj (md m) (md_sym m)); [rewrite A1; reflexivity|]. rewrite A1. apply (li_adj _ _ I). }
  assert (forall n, label g1 n <> None -> label g2 n = label g1 n) as L2s.
  { intros n Hn. destruct (label g1 n) as [b|] eqn:E; [|congruence]. apply fold_estep_label_some. exact E. }
  assert (forall n, label g1 n = None -> label g2 n = None \/
            (label g2 n = Some na_empty /\ exists nb o, In (nb, o) bs /\ n = N.succ nb)) as L2n.
  { intros n Hn. destruct (fold_estep_label_cases (md m) (pairs_of idx bs) g1 n) as [E|[_ E]]; [left; fold g2 in E; congruence|].
    right. split; [exact E|]. assert (has_node g2 n = true) as HN by (apply has_node_label; eauto).
    unfold g2 in HN. apply fold_estep_has_node in HN. destruct HN as [HN|(e & He & Hm)].
    - apply has_node_label in HN. destruct HN. congruence.
    - unfold pairs_of in He. apply in_map_iff in He. destruct He as ([nb o] & <- & Hin). simpl in Hm.
      destruct Hm as [->| ->]; [rewrite L1 in Hn; discriminate|eauto]. }
  split.
  - intros k a' Hk Ha'. destruct (N.eq_dec k idx) as [->|Hne].
    + assert (a' = a) as -> by congruence. rewrite L2s by congruence. exact L1.
    + assert (label g1 (N.succ k) = Some (atom_att a')) as E by (rewrite L1o by lia; apply (li_done _ _ I); [lia|exact Ha']).
      rewrite L2s by congruence. exact E.
  - intros n. destruct (label g1 n) as [b|] eqn:E.
    + rewrite L2s by congruence. rewrite E. destruct (N.eq_dec n (N.succ idx)) as [->|Hne].
      * right. right. exists idx, a. rewrite L1 in E. injection E as <-. repeat split; auto. lia.
      * rewrite L1o in E by exact Hne. destruct (li_cases _ _ I n) as [E'|[E'|(k & a' & E1 & E2 & E3 & E4)]]; try congruence.
        -- right. left. congruence.
        -- right. right. exists k, a'. repeat split; auto; [lia|congruence].
    + destruct (L2n n E) as [->|[-> _]]; auto.
  - intros n Hn. destruct (label g1 n) as [b|] eqn:E.
    + destruct (N.eq_dec n (N.succ idx)) as [->|Hne]; [split; [lia|rewrite N.pred_succ; exact Hidx]|].
      rewrite L1o in E by exact Hne. apply (li_rng _ _ I). congruence.
    + destruct (L2n n E) as [E'|[_ (nb & o & Hin & ->)]]; [congruence|].
      destruct (bond_lt idx nb o (Hbs nb o Hin)) as [_ Hnb]. split; [lia|rewrite N.pred_succ; exact Hnb].
  - intros u v. rewrite A2. destruct (pmatch u v (pairs_of idx bs)); [right; reflexivity|apply (li_adj _ _ I)].
  - intros k bs' nb o Hk Hk' Hin. rewrite A2. destruct (pmatch _ _ (pairs_of idx bs)) eqn:PM; [reflexivity|].
    destruct (N.eq_dec (N.of_nat k) idx) as [E|Hne].
    + exfalso. assert (bs' = bs) as -> by (rewrite <- E, Nat2N.id in Hb; congruence).
      assert (pmatch (N.succ (N.of_nat k)) (N.succ nb) (pairs_of idx bs) = true); [|congruence].
      unfold pmatch. apply existsb_exists. exists (N.succ idx, N.succ nb). split.
      * unfold pairs_of. apply in_map_iff. exists (nb, o). auto.
      * simpl. rewrite E. apply pair_eqb_refl.
    + apply (li_bonds _ _ I k bs' nb o); [lia|exact Hk'|exact Hin].
Qed.

Lemma light_loop_inv rest : forall idx g,
  (forall k a bs, nth_error rest k = Some (a, bs) ->
     nth_atom atoms (idx + N.of_nat k) = Some a /\ nth_error ab (N.to_nat idx + k) = Some bs) ->
  LInv idx g -> LInv (idx + N.of_nat (List.length rest)) (light_loop atoms false false idx rest g).
Proof.
  induction rest as [|[a bs] r IH]; intros idx g Hsuf I; simpl.
  - rewrite N.add_0_r. exact I.
  - destruct (Hsuf 0%nat a bs eq_refl) as [Ha Hb]. rewrite N.add_0_r in Ha. rewrite Nat.add_0_r in Hb.
    replace (idx + N.pos (Pos.of_succ_nat (List.length r)))%N with (N.succ idx + N.of_nat (List.length r))%N by lia.
    apply IH; [|apply LInv_step; assumption].
    intros k a' bs' Hk. destruct (Hsuf (S k) a' bs' Hk) as [H1 H2]. split.
    + replace (N.succ idx + N.of_nat k)%N with (idx + N.of_nat (S k))%N by lia. exact H1.
    + replace (N.to_nat (N.succ idx) + k)%nat with (N.to_nat idx + S k)%nat by lia. exact H2.
Qed.
End Light.

Lemma nth_error_combine {A B} (l1 : list A) (l2 : list B) : forall k a b,
  nth_error (combine l1 l2) k = Some (a, b) -> nth_error l1 k = Some a /\ nth_error l2 k = Some b.
Proof.
  revert l2. induction l1 as [|x r IH]; intros l2 k a b; [destruct k; discriminate|].
  destruct l2 as [|y r2]; [destruct k; discriminate|]. destruct k; simpl.
  - intros [= -> ->]. auto.
  - apply IH.
Qed.
Lemma assoc_num_hit l : forall idx k a, nth_error l k = Some a -> assoc (N.succ (idx + N.of_nat k)) (num idx l) = Some (atom_att a).
Proof.
  induction l as [|x r IH]; intros idx k a H; [destruct k; discriminate|]. simpl.
  destruct k; simpl in H.
  - injection H as <-. replace (N.succ (idx + N.of_nat 0)) with (N.succ idx) by lia. rewrite N.eqb_refl. reflexivity.
  - destruct (N.eqb_spec (N.succ (idx + N.of_nat (S k))) (N.succ idx)); [lia|].
    replace (N.succ (idx + N.of_nat (S k))) with (N.succ (N.succ idx + N.of_nat k)) by lia. apply IH. exact H.
Qed.
Lemma assoc_num_rng l : forall idx n x, assoc n (num idx l) = Some x -> (idx < n)%N /\ (N.pred n < idx + N.of_nat (List.length l))%N.
Proof.
  induction l as [|y r IH]; intros idx n x H; [discriminate|]. simpl in H. destruct (N.eqb_spec n (N.succ idx)) as [->|Hne].
  - simpl List.length. lia.
  - apply IH in H. simpl List.length. lia.
Qed.

Theorem light_eq (m : rmol) (ab : list (list (N * Z))) :
  wf_mol m = true -> List.length ab = List.length (fst m) ->
  (forall i bs nb o, nth_error ab i = Some bs -> In (nb, o) bs -> bond_find (N.of_nat i) nb (snd m) = Some o) ->
  (forall i nb o, bond_find i nb (snd m) = Some o -> exists bs, nth_error ab (N.to_nat i) = Some bs /\ In (nb, o) bs) ->
  let g := mol_to_graph_light m ab false false in
  let g' := mol_to_graph m false false in
  (forall n, label g n = label g' n) /\ (forall u v, adj g u v = adj g' u v).
Proof.
  intros Hwf Hlen Hs Hc g g'.
  assert (LInv m ab 0%N g_empty) as I0.
  { split; try (intros; lia); auto.
    - intros n Hn. exfalso. apply Hn. reflexivity. }
  pose proof (light_loop_inv m ab Hwf Hs (combine (fst m) ab) 0%N g_empty) as IL.
  assert (LInv m ab (N.of_nat (List.length (fst m))) g) as I.
  { unfold g, mol_to_graph_light. replace (N.of_nat (List.length (fst m))) with (0 + N.of_nat (List.length (combine (fst m) ab)))%N
      by (rewrite combine_length, Hlen, Nat.min_id; lia).
    apply IL; [|exact I0]. intros k a bs Hk. apply nth_error_combine in Hk. destruct Hk as [H1 H2]. split.
    - unfold nth_atom. rewrite N.add_0_l, Nat2N.id. exact H1.
    - simpl. exact H2. }
  split.
  - intros n. unfold g' at 1. unfold label at 2. rewrite (G_gnodes m Hwf).
    destruct (assoc n (num 0 (fst m))) as [x|] eqn:E.
    + destruct (assoc_num_rng _ _ _ _ E) as [H1 H2].
      destruct (nth_atom_lt m (N.pred n)) as [a Ha]; [lia|].
      pose proof (li_done _ _ _ _ I (N.pred n) a) as D. rewrite N.succ_pred in D by lia. rewrite D; [|lia|exact Ha].
      unfold nth_atom in Ha. pose proof (assoc_num_hit (fst m) 0%N (N.to_nat (N.pred n)) a Ha) as Hh.
      rewrite N2Nat.id, N.add_0_l, N.succ_pred in Hh by lia. congruence.
    + destruct (label g n) as [y|] eqn:L; [|reflexivity]. exfalso.
      destruct (li_rng _ _ _ _ I n) as [H1 H2]; [congruence|].
      destruct (nth_atom_lt m (N.pred n) H2) as [a Ha]. unfold nth_atom in Ha.
      pose proof (assoc_num_hit (fst m) 0%N (N.to_nat (N.pred n)) a Ha) as Hh.
      rewrite N2Nat.id, N.add_0_l, N.succ_pred in Hh by lia. congruence.
  - intros u v. unfold g'. rewrite (G_adj m Hwf). destruct (md m u v) as [y|] eqn:D.
    + destruct (md_some m u v y D) as (i & j & o & -> & -> & F & _).
      destruct (Hc _ _ _ F) as (bs & Hb & Hin). destruct (bond_lt m Hwf _ _ _ F) as [Hi _].
      pose proof (li_bonds _ _ _ _ I (N.to_nat i) bs j o) as B. rewrite N2Nat.id in B.
      rewrite B; [exact D|lia|exact Hb|exact Hin].
    + destruct (li_adj _ _ _ _ I u v) as [E|E]; rewrite E; [reflexivity|exact D].
Qed.

(** non-vacuity: the molecule of proof/C10_MolGraph.v with its per-atom bond lists *)
Example light_eq_ex :
  let ab := [[]; [(2%N, 3); (3%N, 4)]; [(1%N, 3)]; [(1%N, 4)]] in
  gnodes (mol_to_graph_light ex_mol ab false false) = gnodes (mol_to_graph ex_mol false false) /\
  adj (mol_to_graph_light ex_mol ab false false) 2%N 4%N = Some (EA (Some (OS 4)) None).
Proof. vm_compute. auto. Qed.
