(** C18 — network-level reading of clause 2 for the bipartite view: when species labels and reaction ids are pairwise
    distinct and no ordered (species, reaction) incidence is listed twice, the view has a closed form, and a network whose
    species are renamed, whose reactions are re-ordered (also inside a side) and whose reaction ids are regenerated has the
    view of the original network renamed and re-presented -- the hypothesis of C18_canon_invariant. *)
From Coq Require Import List NArith ZArith Bool Arith Lia Permutation.
From SK Require Import lib.IRCore lib.C18_IRValid model.C18_Model proof.C18_Spec proof.C18_Graph proof.C18_View.
Import ListNotations.

(* ---------------- insertion of fresh keys appends ---------------- *)
Lemma set_node_fresh v k l : ~ In v (map fst l) -> set_node v k l = l ++ [(v, k)].
Proof.
  induction l as [|[u k'] l IH]; simpl; intros H; auto.
  destruct (N.eqb_spec u v) as [->|Hne]; [exfalso; auto|]. f_equal. apply IH. auto.
Qed.
Lemma ensure_node_fresh v k l : ~ In v (map fst l) -> ensure_node v k l = l ++ [(v, k)].
Proof.
  induction l as [|[u k'] l IH]; simpl; intros H; auto.
  destruct (N.eqb_spec u v) as [->|Hne]; [exfalso; auto|]. f_equal. apply IH. auto.
Qed.
Lemma ensure_node_present v k l : In v (map fst l) -> ensure_node v k l = l.
Proof.
  induction l as [|[u k'] l IH]; simpl; intros H; [contradiction|].
  destruct (N.eqb_spec u v) as [->|Hne]; auto. f_equal. apply IH. destruct H; [congruence|auto].
Qed.
Lemma set_arc_fresh u v a l : ~ In (u, v) (map akey l) -> set_arc u v a l = l ++ [(u, v, a)].
Proof.
  induction l as [|e l IH]; simpl; intros H; auto.
  destruct (N.eqb (asrc e) u && N.eqb (adst e) v) eqn:E.
  - apply akey_eqb in E. exfalso. auto.
  - f_equal. apply IH. auto.
Qed.

Definition set_arc' (l : list arc) (e : arc) : list arc := set_arc (asrc e) (adst e) (aattr e) l.
Lemma fold_set_arc_fresh L : forall acc, NoDup (map akey (acc ++ L)) -> fold_left set_arc' L acc = acc ++ L.
Proof.
  induction L as [|e L IH]; intros acc H; simpl; [rewrite app_nil_r; auto|].
  unfold set_arc' at 2. rewrite set_arc_fresh.
  - destruct e as [[u v] a]. unfold asrc, adst, aattr. simpl. rewrite IH; rewrite <- app_assoc; auto.
  - rewrite map_app in H. simpl in H. apply NoDup_remove_2 in H. intro I. apply H. apply in_or_app. left. exact I.
Qed.

(* ---------------- the arcs of the bipartite view ---------------- *)
Definition arcs_of_rxn (st : bool) (r : rxn) : list arc :=
  map (fun sc => (fst sc, rid r, (RREACTANT, stv st (snd sc)))) (lhs r)
  ++ map (fun sc => (rid r, fst sc, (RPRODUCT, stv st (snd sc)))) (rhs r).
Definition arcs_of (st : bool) (n : net) : list arc := flat_map (arcs_of_rxn st) (nrxns n).

Lemma varcs_side (F : vgraph -> N * Z -> list (N * Z)) (A : N * Z -> arc) side : forall g,
  varcs (fold_left (fun g sc => VG (F g sc) (set_arc (asrc (A sc)) (adst (A sc)) (aattr (A sc)) (varcs g))) side g)
  = fold_left set_arc' (map A side) (varcs g).
Proof. induction side as [|sc side IH]; intros g; simpl; auto. rewrite IH. reflexivity. Qed.
Lemma vnodes_side (F : list (N * Z) -> N * Z -> list (N * Z)) (A : vgraph -> N * Z -> list arc) side : forall g,
  vnodes (fold_left (fun g sc => VG (F (vnodes g) sc) (A g sc)) side g) = fold_left F side (vnodes g).
Proof. induction side as [|sc side IH]; intros g; simpl; auto. rewrite IH. reflexivity. Qed.

Lemma varcs_add_rxn st g r : varcs (bip_add_rxn st g r) = fold_left set_arc' (arcs_of_rxn st r) (varcs g).
Proof.
  unfold bip_add_rxn, arcs_of_rxn. rewrite fold_left_app.
  rewrite (varcs_side (fun g sc => ensure_node (fst sc) KSPECIES (vnodes g))
             (fun sc => (rid r, fst sc, (RPRODUCT, stv st (snd sc))))).
  rewrite (varcs_side (fun g sc => ensure_node (fst sc) KSPECIES (vnodes g))
             (fun sc => (fst sc, rid r, (RREACTANT, stv st (snd sc))))).
  reflexivity.
Qed.
Lemma vnodes_add_rxn st g r : vnodes (bip_add_rxn st g r)
  = fold_left (fun l sc => ensure_node (fst sc) KSPECIES l) (lhs r ++ rhs r) (set_node (rid r) KREACTION (vnodes g)).
Proof.
  unfold bip_add_rxn. rewrite fold_left_app.
  rewrite (vnodes_side (fun l sc => ensure_node (fst sc) KSPECIES l)
             (fun g sc => set_arc (rid r) (fst sc) (RPRODUCT, stv st (snd sc)) (varcs g))).
  rewrite (vnodes_side (fun l sc => ensure_node (fst sc) KSPECIES l)
             (fun g sc => set_arc (fst sc) (rid r) (RREACTANT, stv st (snd sc)) (varcs g))).
  reflexivity.
Qed.

Lemma varcs_view_bip st n : varcs (view_bip st n) = fold_left set_arc' (arcs_of st n) [].
Proof.
  unfold view_bip, arcs_of.
  assert (G : forall rs g, varcs (fold_left (bip_add_rxn st) rs g) = fold_left set_arc' (flat_map (arcs_of_rxn st) rs) (varcs g)).
  { induction rs as [|r rs IH]; intros g; simpl; auto. rewrite IH, fold_left_app, varcs_add_rxn. reflexivity. }
  rewrite G. reflexivity.
Qed.

Definition sp_node (s : N) : N * Z := (s, KSPECIES).
Definition rx_node (r : rxn) : N * Z := (rid r, KREACTION).

Lemma species_nodes_closed l : NoDup l -> fold_left (fun l s => ensure_node s KSPECIES l) l [] = map sp_node l.
Proof.
  assert (G : forall l acc, NoDup (acc ++ l) ->
            fold_left (fun l s => ensure_node s KSPECIES l) l (map sp_node acc) = map sp_node (acc ++ l)).
  { clear l. induction l as [|x l IH]; intros acc H; simpl; [rewrite app_nil_r; auto|].
    rewrite ensure_node_fresh.
    - change (map sp_node acc ++ [(x, KSPECIES)]) with (map sp_node acc ++ map sp_node [x]). rewrite <- map_app.
      rewrite IH; rewrite <- app_assoc; auto.
    - unfold sp_node. rewrite map_map. simpl. rewrite map_id. apply NoDup_remove_2 in H. intro I. apply H. apply in_or_app. auto. }
  intros H. apply (G l [] H).
Qed.

Theorem view_bip_closed st n :
  NoDup (nspecies n ++ map rid (nrxns n)) -> net_closed n -> NoDup (map akey (arcs_of st n)) ->
  view_bip st n = VG (map sp_node (nspecies n) ++ map rx_node (nrxns n)) (arcs_of st n).
Proof.
  intros Hnd Hcl Hk.
  assert (EA : varcs (view_bip st n) = arcs_of st n) by (rewrite varcs_view_bip; apply (fold_set_arc_fresh _ []); auto).
  assert (EN : vnodes (view_bip st n) = map sp_node (nspecies n) ++ map rx_node (nrxns n)).
  { unfold view_bip.
    assert (G : forall rs done g, vnodes g = map sp_node (nspecies n) ++ map rx_node done ->
              NoDup (nspecies n ++ map rid (done ++ rs)) -> (forall r, In r rs -> In r (nrxns n)) ->
              vnodes (fold_left (bip_add_rxn st) rs g) = map sp_node (nspecies n) ++ map rx_node (done ++ rs)).
    { induction rs as [|r rs IH]; intros done g Hg Hn Hin; simpl; [rewrite app_nil_r; auto|].
      replace (done ++ r :: rs) with ((done ++ [r]) ++ rs) in * by (rewrite <- app_assoc; reflexivity).
      apply IH; auto; [|intros r' I; apply Hin; right; auto].
      rewrite vnodes_add_rxn, Hg.
      assert (Hfresh : ~ In (rid r) (map fst (map sp_node (nspecies n) ++ map rx_node done))).
      { rewrite map_app, !map_map. simpl. rewrite map_id.
        assert (Hn' : NoDup ((nspecies n ++ map rid done) ++ [rid r])).
        { rewrite !map_app in Hn. simpl in Hn. rewrite !app_assoc in Hn. apply NoDup_app_l in Hn. exact Hn. }
        apply NoDup_remove_2 in Hn'. rewrite app_nil_r in Hn'. exact Hn'. }
      rewrite set_node_fresh by auto.
      assert (P : forall (side : list (N * Z)) (l0 : list (N * Z)), (forall sc, In sc side -> In (fst sc) (map fst l0)) ->
                fold_left (fun l sc => ensure_node (fst sc) KSPECIES l) side l0 = l0).
      { induction side as [|sc side IHs]; intros l0 H; simpl; auto.
        rewrite ensure_node_present by (apply H; left; auto). apply IHs. intros; apply H; right; auto. }
      rewrite P.
      - rewrite map_app. simpl. rewrite <- app_assoc. reflexivity.
      - intros sc Hsc. rewrite !map_app. apply in_or_app. left. apply in_or_app. left.
        rewrite map_map. simpl. rewrite map_id. apply (Hcl r); [apply Hin; left; auto|auto]. }
    rewrite (G (nrxns n) [] _); auto.
    - simpl. rewrite app_nil_r. apply species_nodes_closed. apply NoDup_app_l in Hnd. auto.
  }
  destruct (view_bip st n) as [ns es]. simpl in *. subst. reflexivity.
Qed.

(* ---------------- renamed / re-ordered / re-identified networks ---------------- *)
Definition net_ok (st : bool) (n : net) : Prop :=
  NoDup (nspecies n ++ map rid (nrxns n)) /\ net_closed n /\ NoDup (map akey (arcs_of st n)).
Lemma arc_keys_nodup st n :
  NoDup (map rid (nrxns n)) ->
  (forall r, In r (nrxns n) -> NoDup (map fst (lhs r)) /\ NoDup (map fst (rhs r))) ->
  (forall r sc, In r (nrxns n) -> In sc (lhs r ++ rhs r) -> ~ In (fst sc) (map rid (nrxns n))) ->
  NoDup (map akey (arcs_of st n)).
Proof.
  intros Hid Hside Hsep. unfold arcs_of. rewrite flat_map_concat_map, concat_map, map_map.
  (* a key of reaction r carries rid r at one end and one of its species at the other *)
  assert (K : forall r k, In r (nrxns n) -> In k (map akey (arcs_of_rxn st r)) ->
              (snd k = rid r /\ ~ In (fst k) (map rid (nrxns n))) \/ (fst k = rid r /\ ~ In (snd k) (map rid (nrxns n)))).
  { intros r k Hr Hk. unfold arcs_of_rxn in Hk. rewrite map_app, !map_map in Hk. apply in_app_or in Hk.
    destruct Hk as [Hk|Hk]; apply in_map_iff in Hk; destruct Hk as (sc & <- & Hsc); [left|right]; (split; [reflexivity|]);
      apply (Hsep r sc Hr); apply in_or_app; auto. }
  assert (G : forall rs, incl rs (nrxns n) -> NoDup (map rid rs) ->
            NoDup (concat (map (fun r => map akey (arcs_of_rxn st r)) rs))).
  { induction rs as [|r rs IH]; intros Hin Hnd; simpl; [constructor|]. inversion Hnd as [|? ? Hni Hnd']; subst.
    assert (Hr : In r (nrxns n)) by (apply Hin; left; reflexivity).
    apply NoDup_app_intro.
    - destruct (Hside r Hr) as [Hl Hrr]. unfold arcs_of_rxn. rewrite map_app, !map_map. unfold akey, asrc, adst. cbn [fst snd].
      apply NoDup_app_intro.
      + rewrite <- (map_map fst (fun s => (s, rid r))). apply NoDup_map_inj_on; [|exact Hl]. intros x y _ _ E. inversion E; reflexivity.
      + rewrite <- (map_map fst (fun s => (rid r, s))). apply NoDup_map_inj_on; [|exact Hrr]. intros x y _ _ E. inversion E; reflexivity.
      + intros k I1 I2. apply in_map_iff in I1, I2. destruct I1 as (x & <- & Hx), I2 as (y & E & Hy). inversion E as [[E1 E2]].
        apply (Hsep r x Hr (in_or_app _ _ _ (or_introl Hx))). rewrite <- E1. apply in_map, Hr.
    - apply IH; [intros x I; apply Hin; right; exact I|exact Hnd'].
    - intros k I1 I2. apply in_concat in I2. destruct I2 as (l & Hl & Ik). apply in_map_iff in Hl. destruct Hl as (r' & <- & Hr').
      assert (Hr'n : In r' (nrxns n)) by (apply Hin; right; exact Hr').
      assert (Hne : rid r <> rid r') by (intro E; apply Hni; rewrite E; apply in_map; exact Hr').
      destruct (K r k Hr I1) as [[A1 A2]|[A1 A2]], (K r' k Hr'n Ik) as [[B1 B2]|[B1 B2]].
      + congruence.
      + apply A2. rewrite B1. apply in_map, Hr'n.
      + apply B2. rewrite A1. apply in_map, Hr.
      + congruence. }
  apply G; [apply incl_refl|exact Hid].
Qed.

Definition rxn_variant (f : N -> N) (r r' : rxn) : Prop :=
  rid r' = f (rid r) /\ Permutation (rename_side f (lhs r)) (lhs r') /\ Permutation (rename_side f (rhs r)) (rhs r').
Definition net_variant (f : N -> N) (n n' : net) : Prop :=
  Permutation (map f (nspecies n)) (nspecies n') /\
  exists rs, Forall2 (rxn_variant f) (nrxns n) rs /\ Permutation rs (nrxns n').

Definition relab (f : N -> N) (e : arc) : arc := (f (asrc e), f (adst e), aattr e).

Lemma arcs_of_rxn_variant st f r r' : rxn_variant f r r' ->
  Permutation (arcs_of_rxn st r') (map (relab f) (arcs_of_rxn st r)).
Proof.
  intros (Er & Hl & Hr). unfold arcs_of_rxn. rewrite map_app, !map_map. apply Permutation_app.
  - eapply perm_trans; [apply Permutation_map; apply Permutation_sym; exact Hl|].
    unfold rename_side. rewrite map_map. rewrite Er. apply Permutation_refl.
  - eapply perm_trans; [apply Permutation_map; apply Permutation_sym; exact Hr|].
    unfold rename_side. rewrite map_map. rewrite Er. apply Permutation_refl.
Qed.

Theorem net_variant_bip st f n n' : net_ok st n -> net_ok st n' -> net_variant f n n' ->
  geq (view_bip st n') (relabel f (view_bip st n)).
Proof.
  intros (H1 & H2 & H3) (H1' & H2' & H3') (Hs & rs & HF & Hp).
  rewrite (view_bip_closed st n H1 H2 H3), (view_bip_closed st n' H1' H2' H3').
  unfold relabel, geq. simpl. split.
  - rewrite map_app, !map_map. apply Permutation_app.
    + change (fun x : N => (f (fst (sp_node x)), snd (sp_node x))) with (fun x : N => sp_node (f x)).
      rewrite <- (map_map f sp_node). apply Permutation_map. apply Permutation_sym. auto.
    + eapply perm_trans; [apply Permutation_map; apply Permutation_sym; exact Hp|].
      clear - HF. induction HF as [|r r' l l' (Er & _) HF IH]; simpl; auto.
      unfold rx_node in *. simpl. rewrite Er. apply perm_skip. exact IH.
  - unfold arcs_of. eapply perm_trans; [apply Permutation_flat_map; apply Permutation_sym; exact Hp|].
    clear - HF. induction HF as [|r r' l l' Hv HF IH]; simpl; auto.
    rewrite map_app. apply Permutation_app; auto. apply arcs_of_rxn_variant. auto.
Qed.

Lemma node_ids_view_bip st n : net_ok st n -> node_ids (view_bip st n) = nspecies n ++ map rid (nrxns n).
Proof.
  intros (H1 & H2 & H3). rewrite (view_bip_closed st n H1 H2 H3). unfold node_ids. simpl.
  rewrite map_app, !map_map. simpl. rewrite map_id. reflexivity.
Qed.
