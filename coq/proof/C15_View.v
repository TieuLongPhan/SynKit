(** C15 — cached graph views are current (model/C15_View.v).

    [VInv]: a cached view whose recorded version equals the network's version
    was built from a store with the same content as the current one.  Every
    operation of the store language that goes through the methods of the class
    keeps [VInv]; hence every graph a backend hands out is an export of the
    network as it is now.  The only ops outside are the caller-side coefficient
    edits of a returned side ([OSideSet]/[OSideIncr]): the version count cannot
    see them (witness: [view_coef_edit_stale]). *)
From stdpp Require Import gmap strings sets.
From SK Require Import lib.Tok model.C15_Model model.C15_Ext model.C15_View proof.C15_Proof proof.C15_Ext.
Local Open Scope string_scope.

(** everything of a network but the id counters *)
Definition same_content (s s' : net) : Prop :=
  species s' = species s ∧ edges s' = edges s ∧ order s' = order s ∧ s_in s' = s_in s ∧
  s_out s' = s_out s ∧ mol s' = mol s ∧ kept s' = kept s.

Lemma same_content_refl s : same_content s s.
Proof. done. Qed.
Lemma same_content_trans s1 s2 s3 : same_content s1 s2 → same_content s2 s3 → same_content s1 s3.
Proof. intros (?&?&?&?&?&?&?) (?&?&?&?&?&?&?). unfold same_content. split_and!; congruence. Qed.
Lemma same_content_sym s1 s2 : same_content s1 s2 → same_content s2 s1.
Proof. intros (?&?&?&?&?&?&?). unfold same_content. split_and!; congruence. Qed.
Lemma same_content_vproj o s s' : same_content s s' → vproj o s' = vproj o s.
Proof. intros (Hs & He & _). unfold vproj. by rewrite Hs, He. Qed.
Lemma set_counters_same s c : same_content s (set_counters s c).
Proof. done. Qed.

(** ** an operation that does not count left the content alone *)

Lemma add_err_same s l r rule eid s' er e : add s l r rule eid = (s', Some er, e) → same_content s s'.
Proof.
  unfold add. destruct eid as [e0|].
  - destruct (decide _); [by intros [= <- _ _]|]. destruct (rxn_empty _); [by intros [= <- _ _]|done].
  - destruct (next_id _ _) as [[c e1]|]; [|by intros [= <- _ _]].
    destruct (rxn_empty _); [intros [= <- _ _]; apply set_counters_same|done].
Qed.

Lemma add_ok_order s l r rule eid s' e : add s l r rule eid = (s', None, e) → order s' = (order s ++ [e])%list.
Proof. intros H. by apply add_spec in H as (_ & _ & _ & _ & ?). Qed.

Lemma add_same_or_more s l r rule eid :
  same_content s (add s l r rule eid).1.1 ∨ (length (order s) < length (order (add s l r rule eid).1.1))%nat.
Proof.
  destruct (add s l r rule eid) as [[s' [er|]] e] eqn:Ha; cbn.
  - left. by eapply add_err_same.
  - right. apply add_ok_order in Ha as ->. rewrite app_length. cbn. lia.
Qed.

Definition grows (s s' : net) : Prop := same_content s s' ∨ (length (order s) < length (order s'))%nat.
Lemma grows_trans s1 s2 s3 : grows s1 s2 → grows s2 s3 → grows s1 s3.
Proof.
  intros [H1|H1] [H2|H2].
  - left. by eapply same_content_trans.
  - right. destruct H1 as (_ & _ & Ho & _). rewrite <- Ho. done.
  - right. destruct H2 as (_ & _ & Ho & _). by rewrite Ho.
  - right. lia.
Qed.
Lemma grows_unchanged s s' : grows s s' → order s' = order s → same_content s s'.
Proof. intros [H|H] Ho; [done|]. rewrite Ho in H. lia. Qed.

Lemma merge_grows s o prefix : grows s (merge s o prefix).1.
Proof.
  apply (merge_ind (grows s)); [| |by left].
  - intros s0 c H. eapply grows_trans; [exact H|left; apply set_counters_same].
  - intros s0 l r rule eid H. eapply grows_trans; [exact H|apply add_same_or_more].
Qed.

Lemma merge_raw_grows s es prefix : grows s (merge_raw s es prefix).1.
Proof.
  apply (merge_raw_ind (grows s)); [| |by left].
  - intros s0 c H. eapply grows_trans; [exact H|left; apply set_counters_same].
  - intros s0 l r rule eid H. eapply grows_trans; [exact H|apply add_same_or_more].
Qed.

(** ** the invariant *)

Definition view_safe (o : op3) : Prop :=
  match o with O2 (OSideSet _ _ _ _ _) | O2 (OSideIncr _ _ _ _ _) => False | _ => True end.

Record VInv (w : world3) : Prop := {
  v_len : length (vers w) = length (nets (w2 w));
  v_cache : ∀ b be v snap, backends w !! b = Some be → b_cache be = Some (v, snap) →
            (v ≤ getv (vers w) (b_net be))%N ∧
            (v = getv (vers w) (b_net be) → same_content (getn (nets (w2 w)) (b_net be)) snap)
}.

Lemma VInv_init n k nb : VInv (init_world3 n k nb).
Proof.
  split; unfold init_world3, init_world2, init_world; cbn [vers w2 nets backends].
  - by rewrite !replicate_length.
  - intros b be v snap Hb. apply lookup_replicate in Hb as [-> _]. done.
Qed.

Lemma VInv_unfold w :
  VInv w ↔
  length (vers w) = length (nets (w2 w)) ∧
  ∀ b be v snap, backends w !! b = Some be → b_cache be = Some (v, snap) →
    (v ≤ getv (vers w) (b_net be))%N ∧
    (v = getv (vers w) (b_net be) →
     let cur := getn (nets (w2 w)) (b_net be) in
     species snap = species cur ∧ edges snap = edges cur ∧ order snap = order cur ∧ s_in snap = s_in cur ∧
     s_out snap = s_out cur ∧ mol snap = mol cur ∧ kept snap = kept cur).
Proof. split; [intros [? ?]; done|intros [? ?]; by split]. Qed.

Lemma getv_insert_ne vs i k x : k ≠ i → getv (<[i := x]> vs) k = getv vs k.
Proof. intros. unfold getv. by rewrite !nth_lookup, list_lookup_insert_ne. Qed.
Lemma getv_insert_eq vs i x : (i < length vs)%nat → getv (<[i := x]> vs) i = x.
Proof. intros. unfold getv. by rewrite nth_lookup, list_lookup_insert. Qed.
Lemma getv_ge vs i : (length vs ≤ i)%nat → getv vs i = 0%N.
Proof. intros. unfold getv. by rewrite nth_lookup, lookup_ge_None_2. Qed.

(** an operation counts only for the network it targets *)
Lemma bumps_target w o w' er i : bumps w o w' er = Some i → target2 o = Some i.
Proof.
  destruct o as [[]| | | | | | | | | |]; cbn; try done; try (destruct (stored_more _ _); [|done]; by intros [= ->]);
    destruct er; try done; by intros [= ->].
Qed.

Lemma stored_more_false s s' : stored_more s s' = false → order s' = order s.
Proof. unfold stored_more. intros H. apply bool_decide_eq_false in H. by apply dec_stable. Qed.

(** content of every network when the op did not count *)
Lemma unbumped_same w o :
  view_safe (O2 o) → (∀ i j, o ≠ OBase (OCopy i j)) →
  bumps w o (step2 w o).1.1 (step2 w o).1.2 = None →
  ∀ k, same_content (getn (nets w) k) (getn (nets (step2 w o).1.1) k).
Proof.
  intros Hsafe Hnc Hb k.
  destruct (decide (target2 o = Some k)) as [Ht|Hne]; [|by rewrite step2_frame].
  destruct (decide (k < length (nets w))%nat) as [Hlt|Hge]; cycle 1.
  { rewrite !getn_ge; [done|rewrite step2_length; lia|lia]. }
  assert (Hk : getn (nets (step2 w o).1.1) k = step2_net w o) by (by rewrite step2_nets, Ht, getn_setn_eq).
  (* an add or a merge that left the insertion order alone left everything alone *)
  assert (Hadd : grows (getn (nets w) k) (step2_net w o) →
                 (if stored_more (getn (nets w) k) (getn (nets (step2 w o).1.1) k) then Some k else None) = None →
                 same_content (getn (nets w) k) (step2_net w o)).
  { rewrite Hk. intros Hg Hs. destruct (stored_more _ _) eqn:Hm; [done|].
    apply grows_unchanged; [done|by apply stored_more_false]. }
  rewrite Hk.
  destruct o as [o'|i l r rule eid|i j e0 rule eid|k' l|k' x c|i kl kr rule eid|i es p|i e0 lhs x c|i e0 lhs x b|i q|k' l'];
    cbn [target2] in Ht; try discriminate Ht; try (exfalso; exact Hsafe); injection Ht as <-.
  - destruct (step2_base w o') as (_ & He & _). rewrite step_setn in He. cbn [snd] in He.
    destruct o' as [i l r rule eid|i e|i x p|i j p|i j|i x m|i mp st cl];
      cbn [bumps target step2_net step_net fst snd] in *; try rewrite He in Hb.
    + apply Hadd; [apply add_same_or_more|done].
    + destruct (remove_rxn _ _) as [s [er|]] eqn:Hr; [|done]. by apply remove_rxn_err_same in Hr as ->.
    + destruct (remove_species _ _ _) as [s [er|]] eqn:Hr; [|done]. by apply remove_species_err_same in Hr as ->.
    + apply Hadd; [apply merge_grows|done].
    + by destruct (Hnc i j).
    + destruct (assign_mol _ _ _) as [s [er|]] eqn:Hr; [|done]. by apply assign_mol_err_same in Hr as ->.
    + destruct (set_mol_map _ _ _ _) as [s [er|]] eqn:Hr; [|done]. by apply set_mol_map_err_same in Hr as ->.
  - apply Hadd; [apply add_same_or_more|done].
  - cbn [step2_net bumps] in *. destruct (edges _ !! e0); [|done]. apply Hadd; [apply add_same_or_more|done].
  - apply Hadd; [apply add_same_or_more|done].
  - apply Hadd; [apply merge_raw_grows|done].
Qed.

Lemma access_VInv w b : VInv w → VInv (access w b).1.1.
Proof.
  intros [Hl Hc]. unfold access.
  set (be := getb (backends w) b). set (cur := getv (vers w) (b_net be)).
  assert (Hnew : VInv (W3 (w2 w) (vers w)
                   (<[ b := BE (b_net be) (b_opts be) (Some (cur, getn (nets (w2 w)) (b_net be))) ]> (backends w)))).
  { split; [done|]. cbn [backends vers w2]. intros b' be' v snap Hb' Hcache.
    destruct (decide (b' = b)) as [->|Hne].
    - apply list_lookup_insert_Some in Hb' as [(_ & <- & _)|[? _]]; [|done]. cbn in *. injection Hcache as <- <-.
      split; [done|]. intros _. apply same_content_refl.
    - rewrite list_lookup_insert_ne in Hb' by done. by eapply Hc. }
  destruct (b_cache be) as [[v snap]|]; [|exact Hnew]. destruct (decide (v = cur)); [by split|exact Hnew].
Qed.

(** the graph handed out was built from a store with the current content *)
Lemma access_current w b :
  VInv w → same_content (getn (nets (w2 w)) (b_net (getb (backends w) b))) (access w b).2.
Proof.
  intros [Hl Hc]. unfold access.
  set (be := getb (backends w) b). set (cur := getv (vers w) (b_net be)).
  destruct (b_cache be) as [[v snap]|] eqn:Hcache; [|apply same_content_refl].
  destruct (decide (v = cur)) as [->|]; [|apply same_content_refl]. cbn.
  (* a hit: [be] is a real entry of the list (the default entry has no cache) *)
  unfold be, getb in Hcache. rewrite nth_lookup in Hcache.
  destruct (backends w !! b) as [be'|] eqn:Hb; cbn in Hcache; [|done].
  assert (be = be') as Hbe by (unfold be, getb; by rewrite nth_lookup, Hb).
  destruct (Hc b be' cur snap Hb Hcache) as [_ H]. rewrite Hbe. apply H. by rewrite <- Hbe.
Qed.

Lemma reset_on_lookup j bs b be :
  reset_on j bs !! b = Some be →
  ∃ be0, bs !! b = Some be0 ∧ be = if decide (b_net be0 = j) then BE (b_net be0) (b_opts be0) None else be0.
Proof. unfold reset_on. rewrite list_lookup_fmap. destruct (bs !! b) as [be0|]; [|done]. intros [= <-]. eauto. Qed.

Lemma step3_VInv w o : view_safe o → VInv w → VInv (step3 w o).1.1.
Proof.
  intros Hsafe HV. destruct o as [o2|b i o|b|b]; cbn [step3].
  - destruct HV as [Hl Hc].
    destruct (step2 (w2 w) o2) as [[w' er] a] eqn:Hs. cbn [fst].
    assert (Hw' : w' = (step2 (w2 w) o2).1.1) by (by rewrite Hs).
    assert (Her : er = (step2 (w2 w) o2).1.2) by (by rewrite Hs).
    assert (Hlen' : length (nets w') = length (nets (w2 w))) by (rewrite Hw'; apply step2_length).
    assert (Hcopy : (∃ i j, o2 = OBase (OCopy i j)) ∨ (∀ i j, o2 ≠ OBase (OCopy i j))).
    { destruct o2 as [[]| | | | | | | | | |]; try (right; intros ? ?; discriminate). left. eauto. }
    destruct Hcopy as [(i & j & ->)|Hnc'].
    + (* copy: slot j is a new object; its backends were re-created *)
      cbn [step2 step] in Hs. injection Hs as <- _ _. split; cbn [vers w2 nets backends].
      * unfold setn. rewrite insert_length, Hl. symmetry. apply insert_length.
      * intros b be v snap Hb Hcache. apply reset_on_lookup in Hb as (be0 & Hb0 & ->).
        destruct (decide (b_net be0 = j)) as [Hj|Hj]; [done|].
        rewrite getv_insert_ne, getn_setn_ne by done. by eapply Hc.
    + assert (Hvs : (match o2 with
                     | OBase (OCopy i j) => <[ j := getv (vers w) i ]> (vers w)
                     | _ => match bumps (w2 w) o2 w' er with
                            | Some i => <[ i := (getv (vers w) i + 1)%N ]> (vers w)
                            | None => vers w end end) =
                    match bumps (w2 w) o2 w' er with
                    | Some i => <[ i := (getv (vers w) i + 1)%N ]> (vers w)
                    | None => vers w end).
      { destruct o2 as [[]| | | | | | | | | |]; try done. by destruct (Hnc' i j). }
      assert (Hbs : (match o2 with OBase (OCopy i j) => reset_on j (backends w) | _ => backends w end) = backends w).
      { destruct o2 as [[]| | | | | | | | | |]; try done. by destruct (Hnc' i j). }
      rewrite Hvs, Hbs. clear Hvs Hbs.
      destruct (bumps (w2 w) o2 w' er) as [i|] eqn:Hb.
      * pose proof (bumps_target _ _ _ _ _ Hb) as Ht.
        split; cbn [vers w2 nets backends]; [by rewrite insert_length, Hlen'|].
        intros b be v snap Hbe Hcache. destruct (Hc b be v snap Hbe Hcache) as [Hle Hsame].
        destruct (decide (b_net be = i)) as [Hi|Hi].
        -- destruct (decide (i < length (vers w))%nat) as [Hin|Hout].
           ++ rewrite Hi, getv_insert_eq by done. rewrite Hi in Hle. split; [lia|lia].
           ++ (* slot out of range: nothing there, nothing changed *)
              rewrite list_insert_ge by lia. split; [done|]. intros Hv. specialize (Hsame Hv).
              rewrite Hi in *. rewrite getn_ge in * by lia. done.
        -- rewrite getv_insert_ne by done. split; [done|]. intros Hv.
           rewrite Hw', step2_frame; [by apply Hsame|]. rewrite Ht. congruence.
      * split; cbn [vers w2 nets backends]; [by rewrite Hlen'|].
        intros b be v snap Hbe Hcache. destruct (Hc b be v snap Hbe Hcache) as [Hle Hsame].
        split; [done|]. intros Hv. specialize (Hsame Hv).
        assert (Hu : same_content (getn (nets (w2 w)) (b_net be)) (getn (nets w') (b_net be))).
        { rewrite Hw'. apply unbumped_same; [done|done|]. by rewrite <- Hw', <- Her. }
        eapply same_content_trans; [apply same_content_sym, Hu|exact Hsame].
  - destruct HV as [Hl Hc]. split; cbn [fst snd vers w2 nets backends]; [done|].
    intros b' be v snap Hb' Hcache. destruct (decide (b' = b)) as [->|Hne].
    + apply list_lookup_insert_Some in Hb' as [(_ & <- & _)|[? _]]; done.
    + rewrite list_lookup_insert_ne in Hb' by congruence. by eapply Hc.
  - pose proof (access_VInv w b HV) as H. destruct (access w b) as [[w' rb] snap]. exact H.
  - pose proof (access_VInv w b HV) as H. destruct (access w b) as [[w' rb] snap]. exact H.
Qed.

Lemma run3_VInv ops : ∀ w, Forall view_safe ops → VInv w → VInv (fold_left (λ w o, (step3 w o).1.1) ops w).
Proof.
  induction ops as [|o ops IH]; intros w Hs HV; cbn; [done|].
  apply Forall_cons in Hs as [Ho Hs]. apply IH; [done|]. by apply step3_VInv.
Qed.

Lemma view_current_inv w b :
  VInv w →
  let be := getb (backends w) b in
  vproj (b_opts be) (access w b).2 = vproj (b_opts be) (getn (nets (w2 w)) (b_net be)) ∧
  (step3 w (OView b)).2 = L [tstr (graph_type (b_opts be)); tbool (access w b).1.2; tbool true].
Proof.
  intros HV be. assert (H : vproj (b_opts be) (access w b).2 = vproj (b_opts be) (getn (nets (w2 w)) (b_net be)))
    by (by apply same_content_vproj, access_current).
  split; [done|]. cbn [step3]. fold be. destruct (access w b) as [[w' rb] snap]. cbn in *.
  by rewrite bool_decide_eq_true_2.
Qed.

Lemma view_current n k nb ops b :
  Forall view_safe ops →
  let w := fold_left (λ w o, (step3 w o).1.1) ops (init_world3 n k nb) in
  let be := getb (backends w) b in
  vproj (b_opts be) (access w b).2 = vproj (b_opts be) (getn (nets (w2 w)) (b_net be)).
Proof.
  intros Hs w be. apply same_content_vproj, access_current, run3_VInv; [done|apply VInv_init].
Qed.

(** the store part of the world is the [op2] language *)
Lemma step3_store w o2 : w2 (step3 w (O2 o2)).1.1 = (step2 (w2 w) o2).1.1 ∧ (step3 w (O2 o2)).1.2 = (step2 (w2 w) o2).1.2
                         ∧ (step3 w (O2 o2)).2 = (step2 (w2 w) o2).2.
Proof. cbn [step3]. by destruct (step2 (w2 w) o2) as [[w' er] a]. Qed.
Lemma step3_view_store w b : w2 (step3 w (OView b)).1.1 = w2 w ∧ w2 (step3 w (OViewType b)).1.1 = w2 w.
Proof.
  cbn [step3]. unfold access. destruct (b_cache _) as [[v snap]|]; [destruct (decide _)|]; done.
Qed.

(** ** the limit: an in-place coefficient edit of a stored side (through the
    edge object the caller got back) is invisible to the version count — a view
    that reads coefficients stays as it was; one that does not is unaffected *)
Definition exv_ops : list op3 :=
  [ O2 (OAddItems 0 [IPair "A" 1; IPair "B" 2] [ILabel "C"] "" None);
    OBackendNew 0 0 (VO false false true);        (* species graph: reads coefficients *)
    OBackendNew 1 0 (VO true false false);        (* bipartite without stoichiometry *)
    OView 0; OView 1;
    O2 (OSideSet 0 "r_1" true "B" 5) ].
Definition exv_w : world3 := fold_left (λ w o, (step3 w o).1.1) exv_ops (init_world3 1 0 2).
Definition exv_cur : net := getn (nets (w2 exv_w)) 0.

Lemma view_coef_edit_stale :
  coef (default ∅ (r_lhs <$> edges exv_cur !! "r_1")) "B" = 5%Z ∧
  (access exv_w 0).1.2 = false ∧
  vproj (VO false false true) (access exv_w 0).2 ≠ vproj (VO false false true) exv_cur ∧
  vproj (VO true false false) (access exv_w 1).2 = vproj (VO true false false) exv_cur.
Proof.
  split_and!.
  - apply (bool_decide_unpack _). vm_compute. exact Logic.I.
  - vm_compute. reflexivity.
  - apply (bool_decide_unpack _). vm_compute. exact Logic.I.
  - apply (bool_decide_unpack _). vm_compute. exact Logic.I.
Qed.

(** the witness, stated without local definitions (the kernel re-checks it by vm) *)
Lemma view_coef_edit_refuted :
  ∃ (ops : list op3) (b : nat),
    (access (fold_left (λ w o, (step3 w o).1.1) ops (init_world3 1 0 2)) b).1.2 = false ∧
    vproj (b_opts (getb (backends (fold_left (λ w o, (step3 w o).1.1) ops (init_world3 1 0 2))) b))
          (access (fold_left (λ w o, (step3 w o).1.1) ops (init_world3 1 0 2)) b).2 ≠
    vproj (b_opts (getb (backends (fold_left (λ w o, (step3 w o).1.1) ops (init_world3 1 0 2))) b))
          (getn (nets (w2 (fold_left (λ w o, (step3 w o).1.1) ops (init_world3 1 0 2))))
                (b_net (getb (backends (fold_left (λ w o, (step3 w o).1.1) ops (init_world3 1 0 2))) b))).
Proof.
  exists exv_ops, 0%nat. split.
  - vm_compute. reflexivity.
  - apply (bool_decide_unpack _). vm_compute. exact Logic.I.
Qed.

(** non-vacuity of [view_current]: a history through the methods only; the view
    is rebuilt after the add and after the remove, reused in between *)
Definition exv2_ops : list op3 :=
  [ OBackendNew 0 0 (VO true false true); OView 0;
    O2 (OAddItems 0 [ILabel "A"] [ILabel "B"] "" None); OView 0; OView 0;
    O2 (OBase (OSetMolMap 0 [("Z", "1")] true false));      (* KeyError: does not count *)
    OView 0;
    O2 (OBase (ORemoveSpecies 0 "A" true)); OViewType 0; OView 0 ].
Definition exv2_answers : list tok := (fix go (w : world3) (ops : list op3) : list tok :=
  match ops with [] => [] | o :: os => (step3 w o).2 :: go (step3 w o).1.1 os end) (init_world3 1 0 1) exv2_ops.
Local Instance tok_eq_dec : EqDecision tok.
Proof.
  refine (fix go (a b : tok) : Decision (a = b) :=
    match a, b with
    | I x, I y => cast_if (decide (x = y))
    | L x, L y => cast_if (@list_eq_dec _ go x y)
    | _, _ => right _
    end); clear go; abstract congruence.
Defined.
Example C15_view_nonvacuous :
  Forall view_safe exv2_ops ∧
  exv2_answers !! 1%nat = Some (L [tstr "bipartite"; I 1; I 1]) ∧      (* built *)
  exv2_answers !! 3%nat = Some (L [tstr "bipartite"; I 1; I 1]) ∧      (* rebuilt after add *)
  exv2_answers !! 4%nat = Some (L [tstr "bipartite"; I 0; I 1]) ∧      (* reused *)
  exv2_answers !! 6%nat = Some (L [tstr "bipartite"; I 0; I 1]) ∧      (* failed call: reused, still current *)
  exv2_answers !! 8%nat = Some (L [tstr "bipartite"; I 1]) ∧           (* graph_type rebuilds after remove_species *)
  exv2_answers !! 9%nat = Some (L [tstr "bipartite"; I 0; I 1]).
Proof.
  split; [repeat constructor|]. split_and!; apply (bool_decide_unpack _); vm_compute; exact Logic.I.
Qed.
