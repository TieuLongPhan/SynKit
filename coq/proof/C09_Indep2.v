(** C09 — product atoms without reactant partner: the hypotheses of the fixed-point theorem of proof/C09_Indep.v are
    satisfiable with such an atom, and the order premise of its independence theorem is necessary. *)
From Coq Require Import List NArith ZArith Bool Arith Lia Permutation.
From SK Require Import lib.LGraph model.C01_Model model.C09_Model proof.C09_Main.
Import ListNotations.

(** non-vacuity: the reaction with a released proton (partner-less product atom) *)
Example ex_fixed_point_gen_hyps :
  parsed ex_G /\ parsed ex_H3 /\ (exists s, In s (node_ids ex_G) /\ In s (node_ids ex_H3)) /\ enumerates ex_order ex_G /\
  ~ (forall n, In n (node_ids ex_H3) -> In n (node_ids ex_G)).
Proof.
  split; [exact ex_G_parsed|]. split; [exact ex_H3_parsed|]. split; [exists 1%N; simpl; auto|]. split; [exact ex_order_enumerates|].
  intros Hsub. assert (I : In 3%N (node_ids ex_G)) by (apply Hsub; simpl; auto).
  simpl in I. destruct I as [E|[E|[E|[]]]]; discriminate E.
Qed.

(** CH3Br + OH- >> CH3OH + Br- + [Na+:8] + [K+:9]: two product atoms without reactant partner.  Exchanging their
    numbers (a renumbering that fixes every reactant atom) exchanges their canonical numbers 4 and 5. *)
Definition ex_H2 : mgraph :=
  LG [(1%N, GN 70%N false 3 0 None 1); (7%N, GN 82%N false 1 0 None 7); (2%N, GN 17013%N false 0 (-1) None 2);
      (8%N, GN 20068%N false 0 1 None 8); (9%N, GN 78%N false 0 1 None 9)] [(1%N, 7%N, 2%Z)].
Definition ex_p89 : N -> N := transp 8 9.
Definition label_in (r : option (mgraph * list (N * N) * mgraph)) (n : N) : option N :=
  match r with Some (_, _, Hc) => option_map g_el (label Hc n) | None => None end.
Lemma label_in_some r n e : label_in r n = Some e ->
  exists Gc pr Hc, r = Some (Gc, pr, Hc) /\ option_map g_el (label Hc n) = Some e.
Proof. destruct r as [[[Gc pr] Hc]|]; [intros E; exists Gc, pr, Hc; auto|discriminate]. Qed.

Theorem partnerless_order_refuted :
  exists (G H : mgraph) (order : list N) (p : N -> N),
    parsed G /\ enumerates order G /\ (forall a b, p a = p b -> a = b) /\ (forall n, In n (node_ids G) -> p n = n) /\
    exists Gc1 pr1 Hc1 Gc2 pr2 Hc2,
      canonicalise_with (canon_rebuild order G) H = Some (Gc1, pr1, Hc1) /\
      canonicalise_with (canon_rebuild order G) (set_amap (relabel p H)) = Some (Gc2, pr2, Hc2) /\
      option_map g_el (label Hc1 4%N) <> option_map g_el (label Hc2 4%N).
Proof.
  exists ex_G, ex_H2, ex_order, ex_p89.
  split; [exact ex_G_parsed|]. split; [exact ex_order_enumerates|]. split; [apply transp_inj|].
  split; [intros n I; simpl in I; destruct I as [<-|[<-|[<-|[]]]]; reflexivity|].
  (* canonical product atom 4 is sodium in one run and potassium in the other *)
  destruct (label_in_some (canonicalise_with (canon_rebuild ex_order ex_G) ex_H2) 4 20068) as (Gc1 & pr1 & Hc1 & E1 & L1); [vm_compute; reflexivity|].
  destruct (label_in_some (canonicalise_with (canon_rebuild ex_order ex_G) (set_amap (relabel ex_p89 ex_H2))) 4 78)
    as (Gc2 & pr2 & Hc2 & E2 & L2); [vm_compute; reflexivity|].
  exists Gc1, pr1, Hc1, Gc2, pr2, Hc2. split; [exact E1|]. split; [exact E2|]. rewrite L1, L2. discriminate.
Qed.
