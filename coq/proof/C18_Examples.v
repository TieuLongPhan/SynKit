(** C18 — non-vacuity examples for the theorems of props/C18.v and the witness of the known finding
    C18:view-id-collision.  Intermediate values are top-level definitions (no let-patterns in statements). *)
From Coq Require Import List NArith ZArith Bool Arith Lia Permutation.
From SK Require Import lib.IRSortKeys lib.IRCore lib.IRSearch model.C18_Model
  proof.C18_Order proof.C18_Spec proof.C18_Graph proof.C18_Canon proof.C18_Equiv proof.C18_Label proof.C18_Aut
  proof.C18_Invariant proof.C18_Wf proof.C18_Count proof.C18_View proof.C18_Refine proof.C18_NetBip proof.C18_Net proof.C18_Orbits.
From SK Require Import lib.C18_IRValid model.C18_AttrModel proof.C18_Attr.
Import ListNotations.

(* ---------------- a checker for Permutation on concrete lists ---------------- *)
Section Permb.
Variable A : Type.
Variable eqb : A -> A -> bool.
Hypothesis eqb_eq : forall x y, eqb x y = true -> x = y.
Fixpoint remove1 (x : A) (l : list A) : option (list A) :=
  match l with
  | [] => None
  | y :: r => if eqb x y then Some r else option_map (cons y) (remove1 x r)
  end.
Fixpoint permb (l l' : list A) : bool :=
  match l with
  | [] => match l' with [] => true | _ => false end
  | x :: r => match remove1 x l' with Some l'' => permb r l'' | None => false end
  end.
Lemma remove1_perm x l l' : remove1 x l = Some l' -> Permutation l (x :: l').
Proof.
  revert l'. induction l as [|y r IH]; simpl; intros l' H; [discriminate|].
  destruct (eqb x y) eqn:E.
  - apply eqb_eq in E. subst. inversion H; subst. auto.
  - destruct (remove1 x r) as [r'|]; [|discriminate]. inversion H; subst.
    eapply perm_trans; [apply perm_skip; apply IH; reflexivity|apply perm_swap].
Qed.
Lemma permb_perm l : forall l', permb l l' = true -> Permutation l l'.
Proof.
  induction l as [|x r IH]; intros l' H; simpl in H.
  - destruct l'; [auto|discriminate].
  - destruct (remove1 x l') as [l''|] eqn:E; [|discriminate].
    apply Permutation_sym. eapply perm_trans; [apply remove1_perm; exact E|]. apply perm_skip. apply Permutation_sym. auto.
Qed.
End Permb.

Definition node_eqb (a b : N * Z) : bool := N.eqb (fst a) (fst b) && Z.eqb (snd a) (snd b).
Definition arc_eqb (a b : arc) : bool :=
  N.eqb (asrc a) (asrc b) && N.eqb (adst a) (adst b) && Z.eqb (fst (aattr a)) (fst (aattr b)) && Z.eqb (snd (aattr a)) (snd (aattr b)).
Lemma node_eqb_eq a b : node_eqb a b = true -> a = b.
Proof. destruct a, b. unfold node_eqb. simpl. rewrite andb_true_iff, N.eqb_eq, Z.eqb_eq. intros [-> ->]. auto. Qed.
Lemma arc_eqb_eq a b : arc_eqb a b = true -> a = b.
Proof.
  destruct a as [[a1 a2] [a3 a4]], b as [[b1 b2] [b3 b4]]. unfold arc_eqb, asrc, adst, aattr. simpl.
  rewrite !andb_true_iff, !N.eqb_eq, !Z.eqb_eq. intros [[[-> ->] ->] ->]. auto.
Qed.
Definition geqb (g h : vgraph) : bool := permb _ node_eqb (vnodes g) (vnodes h) && permb _ arc_eqb (varcs g) (varcs h).
Lemma geqb_geq g h : geqb g h = true -> geq g h.
Proof.
  unfold geqb. rewrite andb_true_iff. intros [H1 H2]. split.
  - apply (permb_perm _ node_eqb node_eqb_eq). auto.
  - apply (permb_perm _ arc_eqb arc_eqb_eq). auto.
Qed.

(* ---------------- the running example: A >> C, B >> C and a renamed, re-ordered copy ---------------- *)
(** ids: A=0 B=1 C=2 r_1=3 r_2=4 *)
Definition n1 : net := Net [0;1;2]%N [Rxn 3%N [(0%N, 1%Z)] [(2%N, 1%Z)]; Rxn 4%N [(1%N, 1%Z)] [(2%N, 1%Z)]].
(** the renaming x -> 4 - x on 0..4 (identity elsewhere): species become 4,3,2, reactions 1,0; reactions listed in the other order *)
Definition fx (x : N) : N := if N.ltb x 5 then (4 - x)%N else x.
Definition n2 : net := Net [4;3;2]%N [Rxn 0%N [(3%N, 1%Z)] [(2%N, 1%Z)]; Rxn 1%N [(4%N, 1%Z)] [(2%N, 1%Z)]].
(** same skeleton, one coefficient raised: not isomorphic with stoichiometry *)
Definition n3 : net := Net [0;1;2]%N [Rxn 3%N [(0%N, 2%Z)] [(2%N, 1%Z)]; Rxn 4%N [(1%N, 1%Z)] [(2%N, 1%Z)]].

Definition g1 := view true true n1.
Definition g2 := view true true n2.
Definition g3 := view true true n3.
Definition s1 := canon_search g1.
Definition s2 := canon_search g2.
Definition s3 := canon_search g3.
Definition lab1 := match fst s1 with Some lp => fst lp | None => [] end.
Definition p1 := match fst s1 with Some lp => snd lp | None => [] end.
Definition lab2 := match fst s2 with Some lp => fst lp | None => [] end.
Definition p2 := match fst s2 with Some lp => snd lp | None => [] end.
Definition p3 := match fst s3 with Some lp => snd lp | None => [] end.
Definition leaf_a : list N := [3;3;4;1;0;2]%N.
Definition leaf_b : list N := [4;4;3;0;1;2]%N.

Lemma fx_inj x y : fx x = fx y -> x = y.
Proof. unfold fx. destruct (N.ltb_spec x 5), (N.ltb_spec y 5); lia. Qed.

Lemma wf_g1 : wf g1. Proof. apply wfb_wf. vm_compute. reflexivity. Qed.
Lemma wf_g2 : wf g2. Proof. apply wfb_wf. vm_compute. reflexivity. Qed.
Lemma wf_g3 : wf g3. Proof. apply wfb_wf. vm_compute. reflexivity. Qed.
Lemma kinds_g1 : kinds_ok g1. Proof. apply kinds_okb_ok. vm_compute. reflexivity. Qed.
Lemma arcs_g1 : arcs_ok g1. Proof. apply arcs_okb_ok. vm_compute. reflexivity. Qed.
Lemma geq_g2 : geq g2 (relabel fx g1). Proof. apply geqb_geq. vm_compute. reflexivity. Qed.

Lemma best_of g : wf g -> fst (canon_search g) =
  Some (match fst (canon_search g) with Some lp => fst lp | None => [] end,
        match fst (canon_search g) with Some lp => snd lp | None => [] end).
Proof. intros Hw. pose proof (canon_found g Hw). destruct (fst (canon_search g)) as [[l p]|]; [reflexivity|contradiction]. Qed.
Lemma best1 : fst (canon_search g1) = Some (lab1, p1). Proof. exact (best_of g1 wf_g1). Qed.
Lemma best2 : fst (canon_search g2) = Some (lab2, p2). Proof. exact (best_of g2 wf_g2). Qed.

(** The search of the example, evaluated once. *)
Lemma s1_eq : exists lab, canon_search g1 = (Some (lab, leaf_a), [leaf_a; leaf_b]). Proof. eexists. vm_compute. reflexivity. Qed.
Lemma p1_eq : p1 = leaf_a. Proof. destruct s1_eq as [lab E]. unfold p1, s1. rewrite E. reflexivity. Qed.
Lemma min_leaves_g1 : min_leaves g1 = [leaf_a; leaf_b]. Proof. destruct s1_eq as [lab E]. exact (f_equal snd E). Qed.

(** C18_search_is_fold / C18_canon_found: the search of the example needs individualisation (prefix of length 1:
    the best permutation has 6 entries for 5 nodes) and finds two minimal leaves *)
Example ex_found : fst s1 <> None /\ length p1 = 6 /\ length (vnodes g1) = 5 /\ length (snd s1) = 2.
Proof. rewrite p1_eq. destruct s1_eq as [lab E]. unfold s1. rewrite E. repeat split. discriminate. Qed.

(** C18_canon_iso: premises hold; the canonical ids are 2..6 *)
Example ex_canon_iso : wf g1 /\ fst s1 = Some (lab1, p1) /\
  Permutation (node_ids (canon_graph g1 p1)) (map N.of_nat (seq 2 5)).
Proof.
  split; [exact wf_g1|]. split; [exact best1|]. rewrite p1_eq.
  apply (permb_perm _ N.eqb (fun x y H => proj1 (N.eqb_eq x y) H)). vm_compute. reflexivity.
Qed.

(** C18_sig_rel / C18_leaves_equivariant / C18_canon_invariant: all premises hold for (g1, g2, fx) and the two views are
    different presentations (different ids, different arc order); the conclusion is checked independently *)
Example ex_invariant_premises :
  (forall x y, fx x = fx y -> x = y) /\ wf g1 /\ kinds_ok g1 /\ arcs_ok g1 /\ geq g2 (relabel fx g1) /\
  fst s1 = Some (lab1, p1) /\ fst s2 = Some (lab2, p2) /\ g2 <> g1 /\ varcs g2 <> varcs (relabel fx g1).
Proof.
  split; [exact fx_inj|]. split; [exact wf_g1|]. split; [exact kinds_g1|]. split; [exact arcs_g1|].
  split; [exact geq_g2|]. split; [exact best1|]. split; [exact best2|]. split; vm_compute; discriminate.
Qed.
Example ex_invariant_conclusion : lab2 = lab1 /\ geq (canon_graph g2 p2) (canon_graph g1 p1).
Proof. exact (canon_invariant fx fx_inj g1 g2 lab1 p1 lab2 p2 wf_g1 kinds_g1 arcs_g1 geq_g2 best1 best2). Qed.

(** C18_canon_complete: premises hold for (g1, g2); and for the non-isomorphic g3 the canonical graphs differ *)
Example ex_complete : iso g1 g2.
Proof.
  apply (canon_complete g1 g2 lab1 p1 lab2 p2 wf_g1 wf_g2 best1 best2). apply geq_sym. exact (proj2 ex_invariant_conclusion).
Qed.
Example ex_complete_differs : geqb (canon_graph g1 p1) (canon_graph g3 p3) = false.
Proof. rewrite p1_eq. vm_compute. reflexivity. Qed.

(* ---------------- the known finding C18:view-id-collision ---------------- *)
(** A >> B with reaction id r_1; ids A=0 B=1 r_1=2.  Renaming species A to "r_1" gives species {B=0, r_1=1} and the
    reaction id r_1=1 in the shared namespace of the view: the species node and the reaction node collapse. *)
Definition nc : net := Net [0;1]%N [Rxn 2%N [(0%N, 1%Z)] [(1%N, 1%Z)]].
Definition nc' : net := Net [0;1]%N [Rxn 1%N [(1%N, 1%Z)] [(0%N, 1%Z)]].
Lemma view_id_collision : length (vnodes (view true true nc)) = 3 /\ length (vnodes (view true true nc')) = 2 /\
  has_arc (view true true nc') 1%N 1%N = true.
Proof. vm_compute. auto. Qed.

(** stated on the network: an injective renaming of the species whose image meets the reaction ids changes the number of
    nodes of the view, so the views (and canonical graphs) of the two networks are not isomorphic *)
Definition fcol (x : N) : N := if N.eqb x 0 then 2%N else x.
Lemma species_renaming_refuted : exists (n : net) (f : N -> N),
  inj_on f (nspecies n) /\ length (vnodes (view true true (rename_species f n))) <> length (vnodes (view true true n)).
Proof.
  exists nc, fcol. split.
  - intros x y Hx Hy. simpl in Hx, Hy. destruct Hx as [<-|[<-|[]]], Hy as [<-|[<-|[]]]; vm_compute; congruence.
  - vm_compute. discriminate.
Qed.

(** C18_aut_count / C18_orbit_relation: the example view has exactly two minimal leaves, i.e. two structure-preserving
    self-maps (identity and A<->B, r_1<->r_2); the second leaf is the image of the first under the swap *)
Definition swapx (x : N) : N :=
  if N.eqb x 0 then 1%N else if N.eqb x 1 then 0%N else if N.eqb x 3 then 4%N else if N.eqb x 4 then 3%N else x.
Example ex_aut_count : length (min_leaves g1) = 2 /\ leaf_b = map swapx leaf_a /\ leaf_b <> leaf_a.
Proof. rewrite min_leaves_g1. split; [reflexivity|]. split; [reflexivity|discriminate]. Qed.
Example ex_aut_count_thm : exists s, is_aut g1 s /\ leaf_b = map s p1.
Proof.
  assert (I : In leaf_b (min_leaves g1)) by (rewrite min_leaves_g1; right; left; reflexivity).
  pose proof (aut_count g1 lab1 p1 wf_g1 kinds_g1 arcs_g1 best1) as H.
  exact (proj1 (proj1 (proj2 H) leaf_b) I).
Qed.

(** C18_view_wf: the premises hold for the example network *)
Example ex_view_wf : coeffs_ok n1 /\ net_closed n1.
Proof.
  split; intros r Hr sc Hsc; simpl in Hr; destruct Hr as [<-|[<-|[]]]; simpl in Hsc;
    destruct Hsc as [<-|[<-|[]]]; simpl; try lia; auto.
Qed.

(** C18_vf2_count: the reference enumerator finds the same two self-maps *)
Example ex_vf2_count : length (auts g1) = 2 /\ length (auts g3) = 1.
Proof. vm_compute. auto. Qed.

(** C18_refine_stable: the premise holds for the initial partition of the example (and the first refinement splits it) *)
Example ex_refine_stable : vpart (node_ids g1) (init_part g1) /\
  length (init_part g1) = 2 /\ length (refine IRInst.lexleb (sig g1) 6 (init_part g1)) = 3.
Proof. split; [exact (init_part_vpart g1 (proj1 wf_g1))|]. vm_compute. auto. Qed.

(** C18_net_canon_invariant_bip: n2 is n1 with species renamed, reactions re-ordered and reaction ids regenerated *)
Lemma nodup_N (l : list N) : nodupb N.eqb l = true -> NoDup l.
Proof. apply (nodupb_spec N.eqb N.eqb_eq). Qed.
Lemma nodup_NN (l : list (N * N)) : nodupb pairN_eqb l = true -> NoDup l.
Proof. apply (nodupb_spec pairN_eqb pairN_eqb_spec). Qed.
Lemma closed_n (n : net) : forallb (fun r => forallb (fun sc => memN (fst sc) (nspecies n)) (lhs r ++ rhs r)) (nrxns n) = true -> net_closed n.
Proof.
  intros H r Hr sc Hsc. rewrite forallb_forall in H. specialize (H r Hr). rewrite forallb_forall in H.
  apply memN_spec. apply H. exact Hsc.
Qed.
Example ex_net_ok : net_ok true n1 /\ net_ok true n2.
Proof.
  split; (split; [apply nodup_N; vm_compute; reflexivity|split; [apply closed_n; vm_compute; reflexivity|apply nodup_NN; vm_compute; reflexivity]]).
Qed.
Example ex_net_variant : net_variant fx n1 n2.
Proof.
  split; [vm_compute; apply Permutation_refl|].
  exists [Rxn 1%N [(4%N, 1%Z)] [(2%N, 1%Z)]; Rxn 0%N [(3%N, 1%Z)] [(2%N, 1%Z)]]. split.
  - repeat constructor.
  - apply perm_swap.
Qed.
Example ex_net_invariant : lab2 = lab1 /\ geq (canon_graph (view true true n2) p2) (canon_graph (view true true n1) p1).
Proof.
  apply (net_canon_invariant_bip true fx n1 n2 lab1 p1 lab2 p2 (proj1 ex_net_ok) (proj2 ex_net_ok) (proj1 ex_view_wf) ex_net_variant).
  - intros x y _ _. apply fx_inj.
  - exact best1.
  - exact best2.
Qed.

(** C18_vf2_orbits: the orbit classes of the example: {A,B}, {C}, {r_1,r_2} *)
Example ex_vf2_orbits : conn (uf_orbits (node_ids g1) (auts g1)) 0%N 1%N /\ length (uf_orbits (node_ids g1) (auts g1)) = 3.
Proof. split; [exists [1;0]%N; vm_compute; auto|vm_compute; reflexivity]. Qed.

(** C18_orbits / C18_orbits_cover: the canonicaliser's orbit list of the example: {r_1,r_2}, {A,B}, {C} *)
Example ex_canon_orbits : orbits_from_perms (min_leaves g1) = [[3;4];[1;0];[2]]%N.
Proof. rewrite min_leaves_g1. vm_compute. reflexivity. Qed.

(** C18_net_renamed_ids: the premises hold for the example network under the renaming fx *)
Example ex_renamed_ids : net_ok true (rename_net fx n1) /\ inj_on fx (nspecies n1 ++ map rid (nrxns n1)) /\
  view true true (rename_net fx n1) <> view true true n1.
Proof.
  split; [split; [apply nodup_N; vm_compute; reflexivity|split; [apply closed_n; vm_compute; reflexivity|apply nodup_NN; vm_compute; reflexivity]]|].
  split; [intros x y _ _; apply fx_inj|vm_compute; discriminate].
Qed.

(** C18_mappings: the two mappings of the example (identity and the swap) *)
Example ex_mappings : length (maps_from_perms leaf_a [leaf_a; leaf_b]) = 2 /\
  existsb (fun kv => N.eqb (fst kv) 0 && N.eqb (snd kv) 1) (nth 1 (maps_from_perms leaf_a [leaf_a; leaf_b]) []) = true.
Proof. vm_compute. split; reflexivity. Qed.

(** C18_attr_default / C18_attr_canon_iso: the example view under the selection (label, bipartite; stoich) with label table
    A,B,C < r (species labelled by name, both reactions by rule "r"): the labels split {A,B}, the search needs no individualisation *)
Definition lt1 : ltab := [(0%N, (0%Z, [65%N])); (1%N, (1%Z, [66%N])); (2%N, (2%Z, [67%N])); (3%N, (3%Z, [114%N])); (4%N, (3%Z, [114%N]))].
Example ex_attr : NoDup (node_ids g1) /\ length (snd (canon_searchA g1 lt1 [NLabel; NBip] [EStoich])) = 1 /\
  length (snd (canon_searchA g1 lt1 [] [])) = 2.
Proof. split; [exact (proj1 wf_g1)|]. vm_compute. auto. Qed.

(** C18_wl_respects_selected_auts / C18_wl_never_splits_orbit / C18_wl_cells_partition: the example view has a non-trivial
    structure-preserving self-map (ex_aut_count_thm: A <-> B, r_1 <-> r_2); the WL colour cells under the default options are
    {r_1,r_2}, {A,B}, {C}; with n_iter = 0 and without neighbours the cells are the coarser {r_1,r_2}, {A,B,C}-split by degree *)
From SK Require Import model.C18_WLModel proof.C18_WL.
Definition wl1 := wl_colors g1 [] [NKind] [ERole; EStoich] true true 20.
Lemma wl_cells1 : wl_cells g1 wl1 = [[3;4];[0;1];[2]]%N. Proof. vm_compute. reflexivity. Qed.
Example ex_wl : (exists s, is_aut g1 s /\ leaf_b = map s p1) /\
  wl_cells g1 wl1 = [[3;4];[0;1];[2]]%N /\ map fst wl1 = node_ids g1 /\
  wl_cells g1 (wl_colors g1 lt1 [NLabel] [] false false 3) = [[0];[1];[2];[3;4]]%N.
Proof. split; [exact ex_aut_count_thm|]. split; [exact wl_cells1|]. vm_compute. auto. Qed.
Example ex_wl_autA : exists s, is_autA g1 lt1 [NKind; NBip; NNone] [EStoich; ENone] s /\ leaf_b = map s p1.
Proof.
  destruct ex_aut_count_thm as (s & Hs & E). exists s. split; auto.
  apply is_aut_is_autA; auto. repeat constructor; discriminate.
Qed.

(** C18_max_depth_*: the example needs one individualisation: max_depth = 0 stops early before any leaf (the code raises), with
    max_depth = 1 the answer is complete and the flag says so; 5 nodes: any bound >= 5 is enough by the theorem *)
From SK Require Import model.C18_DepthModel proof.C18_Depth.
Example ex_max_depth : canon_search_md g1 (Some 0) = ((None, []), true) /\
  canon_search_md g1 (Some 1) = (canon_search g1, false) /\ length (vnodes g1) <= 5 /\ fst (canon_search g1) <> None.
Proof.
  split; [vm_compute; reflexivity|]. split; [|split; [vm_compute; auto|rewrite best1; discriminate]].
  assert (E : snd (canon_search_md g1 (Some 1)) = false) by (vm_compute; reflexivity).
  rewrite <- (canon_md_exact g1 (Some 1) E), <- E. apply surjective_pairing.
Qed.

(** C18_intids_*: the example network under integer_ids: species 1,2,3, reactions 4,5 -- a different view, same canonical graph *)
From SK Require Import model.C18_IntIdsModel proof.C18_IntIds.
Example ex_intids : net_ok true n1 /\ coeffs_ok n1 /\
  intids_net n1 = Net [1;2;3]%N [Rxn 4%N [(1%N, 1%Z)] [(3%N, 1%Z)]; Rxn 5%N [(2%N, 1%Z)] [(3%N, 1%Z)]] /\
  view true true (intids_net n1) <> view true true n1.
Proof. split; [exact (proj1 ex_net_ok)|]. split; [exact (proj1 ex_view_wf)|]. vm_compute. split; [reflexivity|discriminate]. Qed.

(** C18_vf2_uf_*: the structure-following union-find on the two self-maps of the example: parent links after the run, buckets in
    node order {A,B}, {C}, {r_1,r_2}; the bookkeeping of summary(max_count=1) on 2 mappings: stopped early after one *)
From SK Require Import model.C18_UFModel proof.C18_UF.
Example ex_uf : orbits_from_mappings (node_ids g1) (auts g1) = [[0;1];[2];[3;4]]%N /\
  orbits_from_mappings (node_ids g1) (rev (auts g1)) = [[0;1];[2];[3;4]]%N /\
  vf2_bookkeeping 2 1 = (1, true, 1, 1) /\ vf2_bookkeeping 2 100 = (2, false, 2, 2) /\ vf2_bookkeeping 2 (-1) = (1, true, 0, 1).
Proof. vm_compute. auto. Qed.

(** C18_vf2_attr_*: under the selection (label) the two species A and B of the example are told apart: only the identity is left;
    under the empty selection species and reactions are still separated by the arc attributes: 2 self-maps as with (kind) *)
From SK Require Import model.C18_AutAttrModel proof.C18_AutAttr.
Example ex_auts_attr : length (autsA g1 lt1 [NLabel]) = 1 /\ length (autsA g1 lt1 []) = 2 /\ length (autsA g1 lt1 [NKind; NBip]) = 2 /\
  orbits_from_mappings (node_ids g1) (autsA g1 lt1 [NLabel]) = [[0];[1];[2];[3];[4]]%N.
Proof. vm_compute. auto. Qed.

(** C18_spattr_*: 2A >> 3B, 3A + C >> 2B, 4A >> 4B + 2C (ids A=0 B=1 C=2): the arc (A, B) of the species view aggregates three
    contributions to (min 2 3 4, min 3 2 4) = (2, 2); the selection (kind; stoich_r, stoich_p) finds a leaf *)
From SK Require Import model.C18_SpAttrModel proof.C18_SpAttr.
Definition n_agg : net := Net [0;1;2]%N [Rxn 3%N [(0%N, 2%Z)] [(1%N, 3%Z)]; Rxn 4%N [(0%N, 3%Z); (2%N, 1%Z)] [(1%N, 2%Z)];
                                          Rxn 5%N [(0%N, 4%Z)] [(1%N, 4%Z); (2%N, 2%Z)]].
Example ex_spattr : find_arc (view_spS n_agg) 0%N 1%N = Some (2%Z, 2%Z) /\ net_closed n_agg /\
  fst (canon_searchS (view_spS n_agg) [] [NKind] [SR; SP]) <> None /\ node_ids (view_spS n_agg) <> [].
Proof.
  split; [vm_compute; reflexivity|]. split; [apply closed_n; vm_compute; reflexivity|]. split; vm_compute; discriminate.
Qed.

(** max_depth can also stop early AFTER leaves were found, and then the answer may be incomplete: A >> C, C >> A, B >> B in the
    species view (ids A=0 B=1 C=2; a 2-cycle and a loop look alike to the refinement).  Branches A (leaf), B (deeper: stop); the
    branch C with the second minimal leaf is never visited: early_stop = true with 1 leaf, the exact answer has 2 *)
Definition n_loop : net := Net [0;1;2]%N [Rxn 3%N [(0%N, 1%Z)] [(2%N, 1%Z)]; Rxn 4%N [(2%N, 1%Z)] [(0%N, 1%Z)]; Rxn 5%N [(1%N, 1%Z)] [(1%N, 1%Z)]].
Example ex_max_depth_truncated :
  snd (canon_search_md (view false true n_loop) (Some 1)) = true /\
  length (snd (fst (canon_search_md (view false true n_loop) (Some 1)))) = 1 /\
  length (snd (canon_search (view false true n_loop))) = 2.
Proof. vm_compute. auto. Qed.

(** C18_wl_coarser_than_orbits: premises hold for the example (see ex_canon_iso, kinds_g1, arcs_g1); its orbit sets {r_1,r_2},
    {A,B}, {C} coincide with the WL cells (ex_wl) *)
Example ex_wl_coarser : wf g1 /\ kinds_ok g1 /\ arcs_ok g1 /\ fst (canon_search g1) = Some (lab1, p1) /\
  In [1;0]%N (orbits_from_perms (min_leaves g1)).
Proof. split; [exact wf_g1|]. split; [exact kinds_g1|]. split; [exact arcs_g1|]. split; [exact best1|]. rewrite ex_canon_orbits. simpl. auto. Qed.

(** Observation on the known finding C18:view-id-collision: under integer_ids=True species and reactions are numbered separately,
    so the colliding network nc' (species label = reaction id) keeps its three nodes, and its numbered view is the numbered view
    of the collision-free nc up to the naming (canonical graphs geq) *)
Definition cs_nc := canon_search (view true true (intids_net nc)).
Definition cs_nc' := canon_search (view true true (intids_net nc')).
Definition p_nc := match fst cs_nc with Some lp => snd lp | None => [] end.
Definition p_nc' := match fst cs_nc' with Some lp => snd lp | None => [] end.
Example ex_intids_no_collision : length (vnodes (view true true nc')) = 2 /\ length (vnodes (view true true (intids_net nc'))) = 3 /\
  geqb (canon_graph (view true true (intids_net nc')) p_nc') (canon_graph (view true true (intids_net nc)) p_nc) = true.
Proof. vm_compute. auto. Qed.

(** C18_attr_invariant_partial / C18_attr_count_lower_partial: the premises hold for the example pair (g1, g2, fx) with the label
    table lt1, and under the selection (bipartite; stoich) the swap A <-> B, r_1 <-> r_2 preserves the selected attributes *)
From SK Require Import proof.C18_AttrEquiv.
Example ex_attr_invariant : (forall x y, fx x = fx y -> x = y) /\ wf g1 /\ geq g2 (relabel fx g1) /\
  length (snd (canon_searchA g1 lt1 [NBip] [EStoich])) = 2 /\ length (snd (canon_searchA g2 (relab_tab fx lt1) [NBip] [EStoich])) = 2 /\
  length (snd (canon_searchA g1 lt1 [NLabel; NKind] [ERole])) = 1.
Proof. split; [exact fx_inj|]. split; [exact wf_g1|]. split; [exact geq_g2|]. vm_compute. auto. Qed.
Example ex_attr_count_lower : exists s, is_autG g1 (nvA g1 lt1 [NBip]) (evA [EStoich]) s /\ s 0%N = 1%N.
Proof.
  destruct ex_aut_count_thm as (s & Hs & E). exists s. split.
  - destruct Hs as (H1 & H2 & H3 & H4). split; [exact H1|]. split; [exact H2|]. split.
    + intros v Hv. unfold nvA. cbn [map nval]. rewrite H3 by exact Hv. reflexivity.
    + intros u v Hu Hv. rewrite H4 by assumption. reflexivity.
  - rewrite p1_eq in E. injection E. auto.
Qed.

(** C18_backend_is_dirty_flags: on the script with an edit behind the hypergraph's back both sides serve the OLD view at the second
    read; C18_intids_species_renaming: the colliding renaming A -> r_1 of nc (fcol) satisfies the premises *)
From SK Require Import model.C18_BackendModel proof.C18_Backend proof.C18_BackendFlags proof.C18_IntIdsRen.
Example ex_dirty_flags : flag_hist n_old [] silent_script = [view true true n_old; view true true n_old] /\
  flag_hist n_old [] method_script = [view true true n_old; view true true n_new].
Proof. vm_compute. auto. Qed.
Example ex_intids_renaming_premises : net_struct nc /\ inj_on fcol (nspecies nc) /\
  length (vnodes (view true true (rename_species fcol nc))) = 2 /\
  length (vnodes (view true true (intids_net (rename_species fcol nc)))) = 3.
Proof.
  split; [|split; [|vm_compute; auto]].
  - split; [apply nodup_N; vm_compute; reflexivity|]. split; [apply nodup_N; vm_compute; reflexivity|]. split; [apply closed_n; vm_compute; reflexivity|].
    intros r [<-|[]]. simpl. split; repeat constructor; simpl; tauto.
  - intros x y Hx Hy. simpl in Hx, Hy. destruct Hx as [<-|[<-|[]]], Hy as [<-|[<-|[]]]; vm_compute; congruence.
Qed.

(** C18_wl_estimate_upper: the example has 2 self-maps; its WL cells have sizes 2, 2, 1: the estimate is 2! * 2! * 1! = 4 >= 2, and
    with cap 3 it is 3 >= min 3 2 *)
From SK Require Import proof.C18_WLBound.
Example ex_wl_estimate : length (auts g1) = 2 /\ estimate (map (@length N) (cellsB g1 true true 20)) 1%N CAP0 = 4%N /\
  estimate (map (@length N) (cellsB g1 true true 20)) 1%N 3%N = 3%N.
Proof. change (cellsB g1 true true 20) with (wl_cells g1 wl1). rewrite wl_cells1. vm_compute. auto. Qed.

(** C18_attr_count_ge_vf2: on the example both tools report 2 under (bipartite), 2 under (kind; absent key) *)
From SK Require Import proof.C18_Cross.
Example ex_cross : length (autsA g1 lt1 [NBip]) = 2 /\ length (snd (canon_searchA g1 lt1 [NBip] [ERole; EStoich])) = 2 /\
  Forall (fun x => x <> NLabel) [NBip].
Proof. split; [vm_compute; reflexivity|]. split; [vm_compute; reflexivity|]. repeat constructor; discriminate. Qed.
