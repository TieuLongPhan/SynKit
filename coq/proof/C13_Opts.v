(** C13 -- proofs about model/C13_Opts.v: the fallback of lib_check is per argument; iterative_cluster has none. *)
From Coq Require Import List ZArith.
From SK Require Import lib.Tok lib.LGraph lib.Mono model.C13_Model model.C13_Trace model.C13_Opts.
Import ListNotations.
Local Open Scope nat_scope.

(** lib_check: each matcher argument falls back to the object's own matcher ON ITS OWN -- the node labels come from the
    caller's matcher iff nodeMatch was given, the bond attribute from the caller's matcher iff edgeMatch was given *)
Theorem lib_check_fallback_per_argument (c cm : ccfg) (ns es : msrc) :
  let ce := mix_cfg c cm (fallback ns) (fallback es) in
  (cc_names ce = match ns with MExplicit => cc_names cm | _ => cc_names c end) /\
  (cc_defs ce = match ns with MExplicit => cc_defs cm | _ => cc_defs c end) /\
  (cc_edge ce = match es with MExplicit => cc_edge cm | _ => cc_edge c end).
Proof. destruct ns, es; repeat split. Qed.

(** ... in particular: only nodeMatch given -> the object's edge attribute is still compared; only edgeMatch given -> the object's
    node labels are still compared; nothing given = the object's configuration; both given = the caller's *)
Corollary lib_check_single_argument (c cm : ccfg) :
  mix_cfg c cm (fallback MExplicit) (fallback MNone) = {| cc_names := cc_names cm; cc_defs := cc_defs cm; cc_edge := cc_edge c |} /\
  mix_cfg c cm (fallback MNone) (fallback MExplicit) = {| cc_names := cc_names c; cc_defs := cc_defs c; cc_edge := cc_edge cm |} /\
  mix_cfg c cm (fallback MNone) (fallback MNone) = {| cc_names := cc_names c; cc_defs := cc_defs c; cc_edge := cc_edge c |} /\
  mix_cfg c cm (fallback MExplicit) (fallback MExplicit) = {| cc_names := cc_names cm; cc_defs := cc_defs cm; cc_edge := cc_edge cm |}.
Proof. repeat split. Qed.

(** the isomorphism test a lib_check call uses always compares node labels AND bond attribute (both flags true) *)
Theorem lib_check_options c cm mode rpool ts i ns es :
  stepR c cm mode rpool ts (RLibCheck i ns es) =
  let ce := mix_cfg c cm (fallback ns) (fallback es) in
  stepx (cc_defs ce) mode (map (mk_item ce) rpool) (map (reproj ce rpool) ts) (OBase (OLibCheck i)).
Proof. reflexivity. Qed.

(** iterative_cluster: no fallback -- a side whose matcher is None is not compared at all *)
Theorem gc_iter_no_fallback (c cm : ccfg) :
  (forall defs x y, item_iso2 true true defs x y = item_iso true defs x y) /\
  (forall defs x y, item_iso2 false false defs x y = item_iso false defs x y) /\
  given MNone = false /\ given MObj = true /\ given MExplicit = true /\
  cc_names (mix_cfg c cm MNone MObj) = [] /\ cc_edge (mix_cfg c cm MExplicit MNone) = 0%N.
Proof. repeat split. Qed.

Module Example_opts.
(** keys: 0 element, 1 charge; edge key 0 order; C-C single against C-C double (same atoms): a bond-order near-miss *)
Definition c0 : ccfg := {| cc_names := [0; 1]%N; cc_defs := [0; 9]%N; cc_edge := 0%N |}.
Definition rA : ritem := MkRItem 0 [] (LG [(1, [(0, 1)]); (2, [(0, 1)])]%N [(1%N, 2%N, [(0%N, [2%Z])])]).
Definition rB : ritem := MkRItem 1 [] (LG [(1, [(0, 1)]); (2, [(0, 1)])]%N [(1%N, 2%N, [(0%N, [4%Z])])]).
(** lib_check with ONLY the node matcher given: the object's bond attribute is still compared, the near-miss opens class 1 *)
Example node_matcher_alone_keeps_the_edge_matcher :
  runR c0 c0 ANone [rA; rB] [RBase (OBase (OTemplates [(0, 0%Z)])); RLibCheck 1 MExplicit MNone] =
  L [L [L []; L [L [I 0; I 0]]; L []];
     L [L [I 1]; L [L [I 0; I 0]; L [I 1; I 1]]; L [L [I 0; I 1; I 0]]]].
Proof. vm_compute. reflexivity. Qed.
(** iterative_cluster with only the node matcher: bonds are not compared, the two are one cluster *)
Example gc_iter_node_matcher_alone : fst (stepR c0 c0 ANone [rA; rB] [] (RGcIter [0; 1] MObj MNone)) =
  L [L [L [I SETMARK; I 0; I 1]]; L [I SETMARK; L [I 0; I 0]; L [I 1; I 0]]; L []; L [L [I 0; I 1; I 1]]].
Proof. vm_compute. reflexivity. Qed.
End Example_opts.
