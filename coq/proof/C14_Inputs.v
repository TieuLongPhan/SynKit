(** C14 — parse_input + dicts_balance_check (model/C14_InputsModel.v): for every worker count the two lists are exactly the
    balanced and the unbalanced ones among the KEPT items (strings and dicts carrying the reaction key), each in input order;
    items of any other kind never show up ([parse_input_dropped]: an item that is not kept can be deleted from the input). *)
From Coq Require Import List.
Import ListNotations.
From SK Require Import model.C14_InputsModel proof.C14_Crn.

Theorem balance_input {A} (n_jobs : nat) (check : A -> bool) (items : list (bitem * A)) :
  dicts_balance_check n_jobs check items =
  (filter check (parse_input items), filter (fun r => negb (check r)) (parse_input items)).
Proof. unfold dicts_balance_check. apply main_balance_workers. Qed.

Lemma parse_input_app {A} (l1 l2 : list (bitem * A)) : parse_input (l1 ++ l2) = parse_input l1 ++ parse_input l2.
Proof. unfold parse_input. now rewrite filter_app, map_app. Qed.

Lemma parse_input_dropped {A} (l1 l2 : list (bitem * A)) k x : kept k = false ->
  parse_input (l1 ++ (k, x) :: l2) = parse_input (l1 ++ l2).
Proof. intros H. rewrite !parse_input_app. unfold parse_input at 2. simpl. now rewrite H. Qed.

Example balance_items_example :
  dicts_balance_check 3 (fun x : nat => Nat.even x) [(IStr, 4); (IDictWithout, 6); (IDictWith, 3); (IOther, 8); (IDictWith, 2)] =
  ([4; 2], [3]).
Proof. vm_compute. reflexivity. Qed.
