(** C15 — proofs about the extended history language (model/C15_Ext.v).

    Contents
      1. RXNSide.from_any: the normalised side is the positive integer multiset of
         the positive counts given per label
      2. every [op2] keeps the store invariant; queries and edits of caller-held
         objects do not change any network; frame
      3. molecule labels: exact specifications of set_mol_map / assign_mol / get_mol
      4. coefficient edits through a returned edge
      5. stored reactions are kept by every [op2] except the ones that name them
      6. labels are dropped only together with their species
      7. what an add through RXNSide objects stores *)
From stdpp Require Import gmap strings sets.
From SK Require Import model.C15_Model model.C15_Ext proof.C15_Proof.
Local Open Scope string_scope.

(** * 1. normalisation *)

Definition weight (s : string) (it : item) : Z :=
  match it with
  | IPair s' c => if decide (s' = s) then Z.max 0 c else 0%Z
  | ILabel s' => if decide (s' = s ∧ s' ≠ "") then 1%Z else 0%Z
  end.
Definition total (s : string) (l : list item) : Z := foldr (λ it acc, (weight s it + acc)%Z) 0%Z l.

Lemma coef_bump acc s p x :
  coef (bump acc s p) x = (if decide (s = x) then coef acc x + Z.pos p else coef acc x)%Z.
Proof.
  unfold bump, coef, side in *. destruct (decide (s = x)) as [->|Hne].
  - rewrite lookup_insert. destruct (acc !! x); lia.
  - by rewrite lookup_insert_ne.
Qed.

Lemma normalize_items_acc l : ∀ acc x,
  coef (foldl (λ acc it, match it with
                         | IPair s c => if (0 <? c)%Z then bump acc s (Z.to_pos c) else acc
                         | ILabel s => if decide (s = "") then acc else bump acc s 1%positive
                         end) acc l) x = (coef acc x + total x l)%Z.
Proof.
  induction l as [|it l IH]; intros acc x; cbn [foldl]; [cbn; lia|].
  rewrite IH. change (total x (it :: l)) with (weight x it + total x l)%Z. destruct it as [s c|s]; cbn [weight].
  - destruct (0 <? c)%Z eqn:Hc.
    + apply Z.ltb_lt in Hc. rewrite coef_bump. destruct (decide (s = x)); [rewrite Z2Pos.id by lia|]; lia.
    + apply Z.ltb_ge in Hc. destruct (decide (s = x)); lia.
  - destruct (decide (s = "")) as [->|Hs].
    + destruct (decide _) as [[_ ?]|?]; [done|lia].
    + rewrite coef_bump. destruct (decide (s = x)) as [->|Hne].
      * rewrite decide_True by done. lia.
      * rewrite decide_False by (by intros [? _]). lia.
Qed.

Lemma coef_normalize_items l x : coef (normalize_items l) x = total x l.
Proof. unfold normalize_items. rewrite normalize_items_acc. unfold coef, side. rewrite lookup_empty. lia. Qed.

Lemma total_nonneg x l : (0 ≤ total x l)%Z.
Proof.
  induction l as [|it l IH]; [cbn; lia|]. change (total x (it :: l)) with (weight x it + total x l)%Z.
  destruct it as [s c|s]; cbn; repeat destruct (decide _); lia.
Qed.

(** a label is a key of the normalised side exactly when it received a positive count *)
Lemma normalize_items_lookup l x :
  normalize_items l !! x = if decide (0 < total x l)%Z then Some (Z.to_pos (total x l)) else None.
Proof.
  pose proof (coef_normalize_items l x) as H. pose proof (total_nonneg x l). unfold coef in H.
  destruct (normalize_items l !! x) as [p|] eqn:E.
  - rewrite decide_True by lia. rewrite <- H. by rewrite Pos2Z.id.
  - rewrite decide_False by lia. done.
Qed.

(** the pair form used by the base language ([op]) is the all-pairs case *)
Lemma normalize_as_items l : normalize l = normalize_items ((λ p, IPair p.1 p.2) <$> l).
Proof.
  unfold normalize, normalize_items. generalize (∅ : side).
  induction l as [|[s c] l IH]; intros acc; cbn; [done|]. rewrite <- IH. unfold bump. done.
Qed.

(** * 2. the invariant under every [op2] *)

(** replacing a stored reaction by one with the same rule and the same key sets *)
Lemma indexed_replace sd m E e rx rx' :
  indexed sd m E → E !! e = Some rx → dom (sd rx') = dom (sd rx) → indexed sd m (<[ e := rx' ]> E).
Proof.
  intros Hm He Hd x e'. rewrite (Hm x e'). destruct (decide (e' = e)) as [->|Hne].
  - rewrite lookup_insert, He. split.
    + intros (r & [= <-] & Hx). exists rx'. by rewrite Hd.
    + intros (r & [= <-] & Hx). exists rx. by rewrite <- Hd.
  - by rewrite lookup_insert_ne.
Qed.

Lemma occurs_replace E e rx rx' x :
  E !! e = Some rx → rxn_species rx' = rxn_species rx → occurs (<[ e := rx' ]> E) x ↔ occurs E x.
Proof.
  intros He Hd. split.
  - intros (e' & r & [[<- <-]|[_ He']]%lookup_insert_Some & Hx); [exists e, rx; by rewrite <- Hd|by exists e', r].
  - intros (e' & r & He' & Hx). destruct (decide (e' = e)) as [->|Hne].
    + exists e, rx'. rewrite lookup_insert, Hd. by simplify_eq.
    + exists e', r. by rewrite lookup_insert_ne.
Qed.

Lemma replace_same_keys_Inv s e rx rx' :
  Inv s → edges s !! e = Some rx →
  r_rule rx' = r_rule rx → dom (r_lhs rx') = dom (r_lhs rx) → dom (r_rhs rx') = dom (r_rhs rx) →
  Inv (Net (species s) (<[ e := rx' ]> (edges s)) (order s) (s_in s) (s_out s) (counters s) (mol s) (kept s)).
Proof.
  intros HI He Hr Hl Hrr.
  assert (Hsp : rxn_species rx' = rxn_species rx) by (unfold rxn_species; by rewrite Hl, Hrr).
  split; cbn; [| | | |apply HI|apply HI|..].
  - apply indexed_producers. eapply indexed_replace; [apply indexed_producers, HI|done..].
  - apply indexed_consumers. eapply indexed_replace; [apply indexed_consumers, HI|done..].
  - intros x Hx. apply (inv_occ _ HI). by eapply occurs_replace.
  - intros x [?|?]%(inv_sp _ HI); [left; by eapply occurs_replace|by right].
  - intros e0. rewrite (inv_order _ HI), lookup_insert_is_Some'. split; [auto|].
    intros [<-|?]; [by rewrite He|done].
  - intros e0 r0 [[_ <-]|[_ H0]]%lookup_insert_Some; [|by eapply (inv_nonempty _ HI)].
    apply rxn_empty_false. rewrite Hsp. by eapply rxn_empty_false, (inv_nonempty _ HI).
  - intros e0 r0 [[_ <-]|[_ H0]]%lookup_insert_Some; [|by eapply (inv_rule _ HI)].
    rewrite Hr. by eapply (inv_rule _ HI).
Qed.

Lemma side_set_g_dom sd x c : dom (side_set_g sd x c) = dom sd.
Proof.
  unfold side_set_g, side_set, coef_edit. destruct (decide _) as [[Hx Hc]|]; [|done].
  destruct (c <=? 0)%Z eqn:E; [apply Z.leb_le in E; lia|].
  unfold side in *. rewrite dom_insert_L. set_solver.
Qed.
Lemma side_incr_g_set sd x b : side_incr_g sd x b = side_set_g sd x (coef sd x + b).
Proof. done. Qed.
Lemma side_incr_g_dom sd x b : dom (side_incr_g sd x b) = dom sd.
Proof. rewrite side_incr_g_set. apply side_set_g_dom. Qed.

Lemma edit_side_Inv s e lhs f :
  (∀ sd, dom (f sd) = dom sd) → Inv s → Inv (edit_side s e lhs f).1.
Proof.
  intros Hf HI. unfold edit_side. destruct (edges s !! e) as [rx|] eqn:He; [|done]. cbn.
  apply (replace_same_keys_Inv s e rx); [done|done|..]; destruct lhs; cbn; try done; apply Hf.
Qed.

Lemma merge_raw_one_add prefix s eid rule l r :
  merge_raw_one prefix (s, None) (eid, rule, l, r) =
  merge_add prefix s eid rule (normalize_items l) (normalize_items r).
Proof. done. Qed.

(** what set_counters and add preserve, merge_raw preserves *)
Lemma merge_raw_ind (P : net → Prop) :
  (∀ s c, P s → P (set_counters s c)) → (∀ s l r rule eid, P s → P (add s l r rule eid).1.1) →
  ∀ s es prefix, P s → P (merge_raw s es prefix).1.
Proof.
  intros Hc Ha s es prefix HP. unfold merge_raw.
  assert (H : P (s, @None err).1) by done. revert H. generalize (s, @None err).
  induction es as [|[[[eid rule] l] r] es IH]; intros [s0 [er|]] H; cbn [foldl]; [done|done|by apply IH|].
  apply IH. rewrite merge_raw_one_add. by apply merge_add_ind.
Qed.

Lemma merge_raw_Inv s es prefix : Inv s → Inv (merge_raw s es prefix).1.
Proof. apply merge_raw_ind; [apply set_counters_Inv|intros; by apply add_Inv]. Qed.

(** the base language ([op]) is embedded unchanged *)
Lemma step2_base w o : nets (step2 w (OBase o)).1.1 = (step (nets w) o).1 ∧ (step2 w (OBase o)).1.2 = (step (nets w) o).2
                       ∧ pool (step2 w (OBase o)).1.1 = pool w.
Proof.
  destruct o; cbn [step2 step].
  - destruct (add _ _ _ _ _) as [[s er] ?]. done.
  - destruct (remove_rxn _ _); done.
  - destruct (remove_species _ _ _); done.
  - destruct (merge _ _ _); done.
  - done.
  - destruct (assign_mol _ _ _); done.
  - destruct (set_mol_map _ _ _ _); done.
Qed.

Definition world_of (w : world2) (o : op2) : world2 := (step2 w o).1.1.

(** which network an [op2] may change; queries and edits of caller-held objects: none *)
Definition target2 (o : op2) : option nat :=
  match o with
  | OBase o' => Some (target o')
  | OAddItems i _ _ _ _ | OAddFrom i _ _ _ _ | OAddPool i _ _ _ _ | OMergeRaw i _ _
  | OSideSet i _ _ _ _ | OSideIncr i _ _ _ _ => Some i
  | OPoolNew _ _ | OPoolEdit _ _ _ | OQuery _ _ | OPoolUpdate _ _ => None
  end.

(** the new value of the network [target2 o]; read only when [target2 o] is [Some _] ([step2_nets]) *)
Definition step2_net (w : world2) (o : op2) : net :=
  match o with
  | OBase o' => (step_net (nets w) o').1
  | OAddItems i l r rule eid => (add (getn (nets w) i) (normalize_items l) (normalize_items r) rule eid).1.1
  | OAddFrom i j e rule eid =>
      match edges (getn (nets w) j) !! e with
      | Some rx => (add (getn (nets w) i) (r_lhs rx) (r_rhs rx) rule eid).1.1
      | None => getn (nets w) i
      end
  | OAddPool i kl kr rule eid => (add (getn (nets w) i) (getp (pool w) kl) (getp (pool w) kr) rule eid).1.1
  | OMergeRaw i es p => (merge_raw (getn (nets w) i) es p).1
  | OSideSet i e lhs x c => (edit_side (getn (nets w) i) e lhs (λ sd, side_set_g sd x c)).1
  | OSideIncr i e lhs x b => (edit_side (getn (nets w) i) e lhs (λ sd, side_incr_g sd x b)).1
  | _ => empty_net
  end.

Lemma setn_getn w i : setn w i (getn w i) = w.
Proof.
  unfold setn, getn, world in *. rewrite nth_lookup. destruct (w !! i) eqn:Hi; cbn.
  - by apply list_insert_id.
  - by apply list_insert_ge, lookup_ge_None.
Qed.

Lemma step2_nets w o :
  nets (step2 w o).1.1 = match target2 o with Some i => setn (nets w) i (step2_net w o) | None => nets w end.
Proof.
  destruct o as [o| | | | | | | | | |];
    [destruct (step2_base w o) as (-> & _); by rewrite step_setn|cbn [step2 target2 step2_net]..]; try done.
  - by destruct (add _ _ _ _ _) as [[? ?] ?].
  - destruct (edges _ !! _); [by destruct (add _ _ _ _ _) as [[? ?] ?]|by rewrite setn_getn].
  - by destruct (add _ _ _ _ _) as [[? ?] ?].
  - by destruct (merge_raw _ _ _).
  - by destruct (edit_side _ _ _ _).
  - by destruct (edit_side _ _ _ _).
Qed.

Lemma step2_Inv w o : Forall Inv (nets w) → Forall Inv (nets (step2 w o).1.1).
Proof.
  intros Hw. rewrite step2_nets.
  destruct o as [o|i l r rule eid|i j e rule eid| | |i kl kr rule eid|i es p|i e lhs x c|i e lhs x b| |];
    cbn [target2 step2_net]; try exact Hw; (apply Forall_insert; [exact Hw|]).
  - by apply step_net_Inv.
  - by apply add_Inv, getn_Inv.
  - destruct (edges _ !! e); [apply add_Inv|]; by apply getn_Inv.
  - by apply add_Inv, getn_Inv.
  - by apply merge_raw_Inv, getn_Inv.
  - apply edit_side_Inv; [intros sd; apply side_set_g_dom|by apply getn_Inv].
  - apply edit_side_Inv; [intros sd; apply side_incr_g_dom|by apply getn_Inv].
Qed.

Lemma run2_Inv ops : ∀ w, Forall Inv (nets w) → Forall Inv (nets (fold_left (λ w o, (step2 w o).1.1) ops w)).
Proof. induction ops as [|o ops IH]; intros w Hw; cbn; [done|]. by apply IH, step2_Inv. Qed.

Lemma reachable2_Inv n k ops :
  Forall Inv (nets (fold_left (λ w o, (step2 w o).1.1) ops (init_world2 n k))).
Proof. apply run2_Inv. cbn. apply init_world_Inv. Qed.

Lemma step2_frame w o k : target2 o ≠ Some k → getn (nets (step2 w o).1.1) k = getn (nets w) k.
Proof.
  intros Hk. rewrite step2_nets. destruct (target2 o) as [i|]; [|done]. apply getn_setn_ne. congruence.
Qed.

(** a query returns the world it was asked in; an edit of a caller-held side
    object changes no network (the store owns copies of what it was given) *)
Lemma query_pure w i q : (step2 w (OQuery i q)).1.1 = w ∧ (step2 w (OQuery i q)).1.2 = None.
Proof. done. Qed.
Lemma pool_edit_pure w k x c : nets (step2 w (OPoolEdit k x c)).1.1 = nets w.
Proof. done. Qed.
Lemma pool_new_pure w k l : nets (step2 w (OPoolNew k l)).1.1 = nets w.
Proof. done. Qed.
Lemma pool_update_pure w k l : nets (step2 w (OPoolUpdate k l)).1.1 = nets w.
Proof. done. Qed.

(** RXNSide.update adds the normalised counts *)
Lemma coef_union_with (m1 m2 : gmap string positive) x :
  coef (union_with (λ p q, Some (p + q)%positive) m1 m2) x = (coef m1 x + coef m2 x)%Z.
Proof. unfold coef, side. rewrite lookup_union_with. destruct (m1 !! x), (m2 !! x); cbn; lia. Qed.
Lemma coef_side_update sd l x : coef (side_update sd l) x = (coef sd x + total x l)%Z.
Proof. unfold side_update. by rewrite coef_union_with, coef_normalize_items. Qed.

(** * 3. molecule labels *)

Definition same_store (s s' : net) : Prop :=
  species s' = species s ∧ edges s' = edges s ∧ order s' = order s ∧ s_in s' = s_in s ∧
  s_out s' = s_out s ∧ counters s' = counters s ∧ kept s' = kept s.

Lemma assign_mol_spec s x m s' er :
  assign_mol s x m = (s', er) →
  (er = None ∧ x ∈ species s ∧ same_store s s' ∧ mol s' = <[ x := m ]> (mol s)) ∨
  (er = Some KeyError ∧ x ∉ species s ∧ s' = s).
Proof.
  unfold assign_mol. destruct (decide _); intros [= <- <-]; [left|right]; done.
Qed.

(** the label table after a fold of set_mol_map: later entries win, entries for
    absent names are ignored *)
Lemma set_mol_fold (S : gset string) mp : ∀ m0 : gmap string string,
  foldl (λ acc p, if decide (p.1 ∈ S) then <[ p.1 := p.2 ]> acc else acc) m0 mp =
  list_to_map (reverse (filter (λ p, p.1 ∈ S) mp)) ∪ m0.
Proof.
  induction mp as [|p mp IH]; intros m0; cbn [foldl].
  - by rewrite filter_nil, reverse_nil, list_to_map_nil, (left_id_L ∅ (∪)).
  - rewrite IH. rewrite filter_cons. destruct (decide (p.1 ∈ S)) as [Hp|Hp]; [|done].
    rewrite reverse_cons, list_to_map_app. destruct p as [x m]. cbn [fst snd].
    rewrite list_to_map_cons, list_to_map_nil, insert_empty.
    rewrite insert_union_singleton_l. by rewrite (assoc_L (∪)).
Qed.

Lemma forallb_false_ex {A} (f : A → bool) l : forallb f l = false → ∃ x, x ∈ l ∧ f x = false.
Proof.
  induction l as [|a l IH]; cbn; [done|]. destruct (f a) eqn:E; cbn.
  - intros (x & ? & ?)%IH. exists x. split; [by right|done].
  - intros _. exists a. split; [by left|done].
Qed.
Lemma forallb_true_all {A} (f : A → bool) l : forallb f l = true → ∀ x, x ∈ l → f x = true.
Proof. rewrite forallb_forall. intros H x Hx. apply H. by apply elem_of_list_In. Qed.

Lemma set_mol_map_spec s mp strict clear s' er :
  set_mol_map s mp strict clear = (s', er) →
  (er = Some KeyError ∧ s' = s ∧ strict = true ∧ ∃ p, p ∈ mp ∧ p.1 ∉ species s) ∨
  (er = None ∧ (strict = true → ∀ p, p ∈ mp → p.1 ∈ species s) ∧ same_store s s' ∧
   mol s' = list_to_map (reverse (filter (λ p, p.1 ∈ species s) mp)) ∪ (if clear then ∅ else mol s)).
Proof.
  unfold set_mol_map. destruct (strict && _) eqn:Hb; intros [= <- <-].
  - left. apply andb_true_iff in Hb as [-> Hb]. split_and!; try done.
    apply negb_true_iff in Hb. apply forallb_false_ex in Hb as (p & Hin & Hp). exists p. split; [done|].
    by apply bool_decide_eq_false in Hp.
  - right. split_and!; try done.
    + intros ->. cbn in Hb. apply negb_false_iff in Hb.
      intros p Hp. pose proof (forallb_true_all _ _ Hb p Hp) as H. by apply bool_decide_eq_true in H.
    + cbn. apply set_mol_fold.
Qed.

(** pointwise reading: the label of [x] after set_mol_map *)
Lemma set_mol_map_lookup s mp strict clear s' x :
  set_mol_map s mp strict clear = (s', None) →
  mol s' !! x =
    match (list_to_map (reverse (filter (λ p, p.1 ∈ species s) mp)) : gmap string string) !! x with
    | Some m => Some m
    | None => if clear then None else mol s !! x
    end.
Proof.
  intros H. apply set_mol_map_spec in H as [(? & _)|(_ & _ & _ & ->)]; [done|].
  rewrite lookup_union. destruct (list_to_map _ !! x) as [m|]; cbn.
  - by destruct ((if clear then ∅ else mol s) !! x).
  - destruct clear; [by rewrite lookup_empty|]. by destruct (mol s !! x).
Qed.

(** labels are stored exactly for present species: a name that is not a present
    species — in particular the id of a stored reaction — never gets a label, and
    strict=True rejects it *)
Lemma set_mol_map_absent s mp strict clear s' er x :
  Inv s → set_mol_map s mp strict clear = (s', er) → x ∉ species s →
  mol s' !! x = None ∧ (strict = true → x ∈ mp.*1 → er = Some KeyError).
Proof.
  intros HI H Hx. pose proof (inv_mol _ HI) as Hm.
  assert (Hn : mol s !! x = None) by (apply not_elem_of_dom; intros Hd; by apply Hx, Hm).
  destruct (set_mol_map_spec _ _ _ _ _ _ H) as [(-> & -> & _)|(-> & Hall & _ & Hmol)].
  - done.
  - split.
    + rewrite Hmol, lookup_union.
      assert ((list_to_map (reverse (filter (λ p, p.1 ∈ species s) mp)) : gmap string string) !! x = None) as ->.
      { apply not_elem_of_list_to_map_1. rewrite elem_of_list_fmap. intros ([y m] & -> & Hin).
        apply elem_of_reverse, elem_of_list_filter in Hin as [? _]. done. }
      destruct clear; [by rewrite lookup_empty|by rewrite Hn].
    + intros -> Hin. apply elem_of_list_fmap in Hin as (p & -> & Hp). destruct Hx. by apply Hall.
Qed.

Lemma set_mol_map_present s mp strict clear s' x m :
  set_mol_map s mp strict clear = (s', None) → x ∈ species s →
  (∃ l1 l2, mp = (l1 ++ (x, m) :: l2)%list ∧ x ∉ l2.*1) → mol s' !! x = Some m.
Proof.
  intros H Hx (l1 & l2 & -> & Hl2). rewrite (set_mol_map_lookup _ _ _ _ _ x H).
  rewrite filter_app, filter_cons, decide_True by done. rewrite reverse_app, reverse_cons.
  rewrite <- (assoc_L (++)). cbn [app].
  assert ((list_to_map ((reverse (filter (λ p, p.1 ∈ species s) l2) ++ [(x, m)]) ++
                       reverse (filter (λ p, p.1 ∈ species s) l1)) : gmap string string) !! x = Some m) as Hl.
  { rewrite list_to_map_app, lookup_union, list_to_map_app, lookup_union.
    assert ((list_to_map (reverse (filter (λ p, p.1 ∈ species s) l2)) : gmap string string) !! x = None) as ->.
    { apply not_elem_of_list_to_map_1. rewrite elem_of_list_fmap. intros ([y m'] & -> & Hin).
      apply elem_of_reverse, elem_of_list_filter in Hin as [_ Hin]. apply Hl2.
      apply elem_of_list_fmap. by exists (y, m'). }
    cbn. rewrite lookup_insert. cbn. by destruct (_ !! x). }
  rewrite <- (assoc_L (++)) in Hl. cbn [app] in Hl. by rewrite Hl.
Qed.

Lemma get_mol_spec s x :
  match get_mol s x with
  | inr m => x ∈ species s ∧ mol s !! x = Some m
  | inl QKeyError => x ∉ species s
  | inl QNoLabel => x ∈ species s ∧ mol s !! x = None
  | inl QInternal => False
  end.
Proof. unfold get_mol. destruct (decide _); [|done]. by destruct (mol s !! x). Qed.

(** a label read back right after it was attached — whatever its value *)
Lemma get_after_assign s x m s' :
  assign_mol s x m = (s', None) → get_mol s' x = inr m.
Proof.
  intros H. apply assign_mol_spec in H as [(_ & Hx & (Hsp & _) & Hm)|(? & _)]; [|done].
  unfold get_mol. rewrite Hsp, decide_True by done. by rewrite Hm, lookup_insert.
Qed.

(** * 4. coefficient edits through a returned edge *)

Lemma coef_side_set_g sd x c y :
  coef (side_set_g sd x c) y = if decide (y = x ∧ coef_edit sd x c) then c else coef sd y.
Proof.
  unfold side_set_g, side_set. destruct (decide (coef_edit sd x c)) as [[Hx Hc]|Hno].
  - destruct (c <=? 0)%Z eqn:E; [apply Z.leb_le in E; lia|]. unfold coef, side in *.
    destruct (decide (y = x)) as [->|Hne].
    + rewrite decide_True by (split; [done|by split]). rewrite lookup_insert. by rewrite Z2Pos.id.
    + rewrite decide_False by (by intros [? _]). by rewrite lookup_insert_ne.
  - rewrite decide_False; [done|]. by intros [_ ?].
Qed.

Lemma coef_side_incr_g sd x b y :
  coef (side_incr_g sd x b) y =
  if decide (y = x ∧ coef_edit sd x (coef sd x + b)) then (coef sd x + b)%Z else coef sd y.
Proof. rewrite side_incr_g_set. apply coef_side_set_g. Qed.

Lemma edit_side_spec s e lhs f s' er :
  edit_side s e lhs f = (s', er) →
  (er = Some KeyError ∧ edges s !! e = None ∧ s' = s) ∨
  (er = None ∧ ∃ rx, edges s !! e = Some rx ∧
     edges s' = <[ e := if lhs then Rxn (r_rule rx) (f (r_lhs rx)) (r_rhs rx)
                        else Rxn (r_rule rx) (r_lhs rx) (f (r_rhs rx)) ]> (edges s) ∧
     species s' = species s ∧ order s' = order s ∧ s_in s' = s_in s ∧ s_out s' = s_out s ∧
     mol s' = mol s ∧ kept s' = kept s ∧ counters s' = counters s).
Proof.
  unfold edit_side. destruct (edges s !! e) as [rx|] eqn:He; intros [= <- <-]; [right|by left].
  split; [done|]. exists rx. by destruct lhs.
Qed.

(** * 5. stored reactions under [op2] *)

Lemma add_sub s l r rule eid : edges s ⊆ edges (add s l r rule eid).1.1.
Proof.
  destruct (add s l r rule eid) as [[s' er] e] eqn:Ha. cbn. apply add_spec in Ha as [_ Ha].
  destruct er as [er|].
  - by destruct Ha as (-> & _).
  - destruct Ha as (Hn & _ & -> & _). by apply insert_subseteq.
Qed.

Lemma merge_raw_sub s es prefix : edges s ⊆ edges (merge_raw s es prefix).1.
Proof.
  apply (merge_raw_ind (λ s', edges s ⊆ edges s')); [done| |done].
  intros s0 l r rule eid H. etrans; [exact H|apply add_sub].
Qed.

Definition may_drop2 (o : op2) (k : nat) (e : string) (rx : rxn) : Prop :=
  match o with
  | OBase o' => may_drop o' k e rx
  | OSideSet i e' _ _ _ | OSideIncr i e' _ _ _ => i = k ∧ e' = e
  | _ => False
  end.

Lemma step2_stored_kept w o k e rx :
  Forall Inv (nets w) → edges (getn (nets w) k) !! e = Some rx → ¬ may_drop2 o k e rx →
  edges (getn (nets (step2 w o).1.1) k) !! e = Some rx.
Proof.
  intros Hw He Hnd.
  destruct (decide (target2 o = Some k)) as [Ht|Hne]; [|by rewrite step2_frame].
  destruct (decide (k < length (nets w))%nat) as [Hlt|Hge]; cycle 1.
  { rewrite getn_ge in He by lia. cbn in He. by rewrite lookup_empty in He. }
  rewrite step2_nets, Ht, getn_setn_eq by done.
  destruct o as [o|i l r rule eid|i j e0 rule eid|k' l|k' x c|i kl kr rule eid|i es p|i e0 lhs x c|i e0 lhs x b|i q|k' l'];
    cbn [target2 may_drop2 step2_net] in *; try discriminate Ht; injection Ht as <-.
  - pose proof (step_stored_kept (nets w) o (target o) e rx Hw He Hnd) as H.
    rewrite step_setn in H. cbn [fst] in H. by rewrite getn_setn_eq in H.
  - eapply lookup_weaken; [done|apply add_sub].
  - destruct (edges _ !! e0); [|done]. eapply lookup_weaken; [done|apply add_sub].
  - eapply lookup_weaken; [done|apply add_sub].
  - eapply lookup_weaken; [done|apply merge_raw_sub].
  - destruct (edit_side _ _ _ _) as [s er] eqn:Hed. cbn [fst].
    apply edit_side_spec in Hed as [(_ & _ & ->)|(_ & rx0 & _ & -> & _)]; [done|].
    rewrite lookup_insert_ne; [done|]. intros ->. by apply Hnd.
  - destruct (edit_side _ _ _ _) as [s er] eqn:Hed. cbn [fst].
    apply edit_side_spec in Hed as [(_ & _ & ->)|(_ & rx0 & _ & -> & _)]; [done|].
    rewrite lookup_insert_ne; [done|]. intros ->. by apply Hnd.
Qed.

(** * 6. labels are dropped only together with their species *)

(** [s'] has fewer species than [s] and the surviving ones kept their labels *)
Definition labels_le (s s' : net) : Prop :=
  species s' ⊆ species s ∧ ∀ x, x ∈ species s' → mol s' !! x = mol s !! x.

Lemma labels_le_refl s : labels_le s s.
Proof. done. Qed.
Lemma labels_le_trans s1 s2 s3 : labels_le s1 s2 → labels_le s2 s3 → labels_le s1 s3.
Proof.
  intros [H1 H1'] [H2 H2']. split; [by etrans|]. intros x Hx. rewrite H2' by done. by apply H1', H2.
Qed.

Lemma remove_rxn_labels s e : labels_le s (remove_rxn s e).1.
Proof.
  destruct (edges s !! e) as [rx|] eqn:He; [|unfold remove_rxn; by rewrite He].
  destruct (remove_rxn_pruned s e rx He) as (_ & _ & Hs & Hm). split.
  - intros x [? _]%Hs. done.
  - intros x [Hx Hn]%Hs. apply option_eq. intros m. rewrite Hm. tauto.
Qed.

Lemma remove_species_labels s x prune : labels_le s (remove_species s x prune).1.
Proof.
  destruct (remove_species s x prune) as [s' [er|]] eqn:Hr.
  - by apply remove_species_err_same in Hr as ->.
  - apply remove_species_shape in Hr as (_ & E & O & ->). destruct prune; [|done]. split; cbn.
    + by apply subseteq_difference_l.
    + intros y [_ Hy]%elem_of_difference. apply lookup_delete_ne. intros ->. by apply Hy, elem_of_singleton.
Qed.

Lemma add_mol s l r rule eid : mol (add s l r rule eid).1.1 = mol s.
Proof.
  unfold add. destruct eid as [e|].
  - destruct (decide _); [done|]. by destruct (rxn_empty _).
  - destruct (next_id _ _) as [[c e]|]; [|done]. by destruct (rxn_empty _).
Qed.

Lemma merge_mol s o prefix : mol (merge s o prefix).1 = mol s.
Proof.
  apply (merge_ind (λ s', mol s' = mol s)); [done| |done]. intros s0 l r rule eid <-. apply add_mol.
Qed.

Lemma merge_raw_mol s es prefix : mol (merge_raw s es prefix).1 = mol s.
Proof.
  apply (merge_raw_ind (λ s', mol s' = mol s)); [done| |done]. intros s0 l r rule eid <-. apply add_mol.
Qed.

Lemma step2_length w o : length (nets (step2 w o).1.1) = length (nets w).
Proof. rewrite step2_nets. destruct (target2 o); [apply insert_length|done]. Qed.

(** the operations that (re)write labels of network [k] *)
Definition relabels (o : op2) (k : nat) (x : string) : Prop :=
  match o with
  | OBase (OAssignMol i x' _) => i = k ∧ x' = x
  | OBase (OSetMolMap i _ _ _) => i = k
  | OBase (OCopy _ j) => j = k
  | _ => False
  end.

Lemma step2_labels_kept w o k x :
  Forall Inv (nets w) → ¬ relabels o k x →
  mol (getn (nets (step2 w o).1.1) k) !! x =
    if decide (x ∈ species (getn (nets (step2 w o).1.1) k)) then mol (getn (nets w) k) !! x else None.
Proof.
  intros Hw Hnr. pose proof (getn_Inv _ k (step2_Inv w o Hw)) as HI'.
  destruct (decide (x ∈ species _)) as [Hx|Hx]; cycle 1.
  { apply not_elem_of_dom. by intros ?%(inv_mol _ HI'). }
  destruct (decide (target2 o = Some k)) as [Ht|Hne]; [|by rewrite step2_frame].
  destruct (decide (k < length (nets w))%nat) as [Hlt|Hge]; cycle 1.
  { rewrite getn_ge in Hx by (rewrite step2_length; lia). by apply elem_of_empty in Hx. }
  revert Hx. rewrite step2_nets, Ht, getn_setn_eq by done.
  destruct o as [o|i l r rule eid|i j e0 rule eid|k' l|k' x0 c|i kl kr rule eid|i es p|i e0 lhs x0 c|i e0 lhs x0 b|i q|k' l'];
    cbn [target2 relabels step2_net] in *; try discriminate Ht; injection Ht as <-.
  - destruct o as [i l r rule eid|i e|i x0 p|i j p|i j|i x0 m|i mp st cl]; cbn [target step_net fst] in *.
    + intros _. by rewrite add_mol.
    + apply remove_rxn_labels.
    + apply remove_species_labels.
    + intros _. by rewrite merge_mol.
    + by destruct Hnr.
    + unfold assign_mol. destruct (decide _); [|done]. cbn. intros _.
      rewrite lookup_insert_ne; [done|]. intros ->. by apply Hnr.
    + by destruct Hnr.
  - intros _. by rewrite add_mol.
  - destruct (edges _ !! e0) as [rx0|]; [|done].
    intros _. by rewrite add_mol.
  - intros _. by rewrite add_mol.
  - intros _. by rewrite merge_raw_mol.
  - destruct (edit_side _ _ _ _) as [s er] eqn:Hed. cbn [fst].
    apply edit_side_spec in Hed as [(_ & _ & ->)|(_ & rx0 & _ & _ & _ & _ & _ & _ & -> & _)]; done.
  - destruct (edit_side _ _ _ _) as [s er] eqn:Hed. cbn [fst].
    apply edit_side_spec in Hed as [(_ & _ & ->)|(_ & rx0 & _ & _ & _ & _ & _ & _ & -> & _)]; done.
Qed.

(** * 7. what an add through RXNSide objects stores: the VALUES at call time *)

Lemma add_stores s l r rule eid s' e :
  add s l r rule eid = (s', None, e) →
  edges s !! e = None ∧ edges s' !! e = Some (Rxn (norm_rule rule) l r) ∧ (∀ e0, eid = Some e0 → e = e0).
Proof.
  intros H. apply add_spec in H as (He & Hn & _ & -> & _). split; [done|]. split; [apply lookup_insert|done].
Qed.

Lemma add_pool_stores w i kl kr rule eid :
  (i < length (nets w))%nat → (step2 w (OAddPool i kl kr rule eid)).1.2 = None →
  ∃ e, edges (getn (nets w) i) !! e = None ∧
       edges (getn (nets (step2 w (OAddPool i kl kr rule eid)).1.1) i) !! e =
         Some (Rxn (norm_rule rule) (getp (pool w) kl) (getp (pool w) kr)) ∧
       pool (step2 w (OAddPool i kl kr rule eid)).1.1 = pool w.
Proof.
  intros Hi. cbn [step2]. destruct (add _ _ _ _ _) as [[s' er] e] eqn:Ha. cbn [fst snd nets setnets pool].
  intros ->. apply add_stores in Ha as (H1 & H2 & _). exists e. rewrite getn_setn_eq by done. done.
Qed.

Lemma add_from_stores w i j e0 rule eid rx :
  (i < length (nets w))%nat → edges (getn (nets w) j) !! e0 = Some rx →
  (step2 w (OAddFrom i j e0 rule eid)).1.2 = None →
  ∃ e, edges (getn (nets w) i) !! e = None ∧
       edges (getn (nets (step2 w (OAddFrom i j e0 rule eid)).1.1) i) !! e =
         Some (Rxn (norm_rule rule) (r_lhs rx) (r_rhs rx)).
Proof.
  intros Hi He0. cbn [step2]. rewrite He0. destruct (add _ _ _ _ _) as [[s' er] e] eqn:Ha.
  cbn [fst snd nets setnets pool]. intros ->. apply add_stores in Ha as (H1 & H2 & _). exists e.
  rewrite getn_setn_eq by done. done.
Qed.
