(** C12 -- the level-by-level search of MCSMatcher._search_subgraphs (model/C12_Model.v) against the
    specification "common induced sub-graph mapping", for arbitrary node / edge matchers.

    [common_induced nm em pattern host m]: m is a list of (pattern node, host node) pairs that is a function,
    injective, maps nodes to nodes with matching labels, and for every two mapped pattern nodes the bond is
    present on both sides with matching attributes or absent on both sides.

    Main results (node ids of the pattern pairwise distinct):
      level_sound / level_complete   the candidates of size k are exactly (up to the order of the pairs) the
                                     common induced mappings of size k  -- via lib/C12_MonoPw.v, induced:=true
      search_mcs_spec                maximum mode: every result is a common induced mapping of size [last];
                                     no common induced mapping is larger; every one of that size is returned
      search_all_spec                all-sizes mode: the results are exactly the non-empty common induced mappings *)
From Coq Require Import List NArith ZArith Bool Arith Lia Permutation.
From SK Require Import lib.LGraph lib.C12_MonoPw model.C12_Model model.C12_Check.
Import ListNotations.

(* ------------------------------------------------------------------ small list facts *)
Lemma NoDup_map_fst_eq (m : list (N * N)) x y :
  NoDup (map fst m) -> In x m -> In y m -> fst x = fst y -> x = y.
Proof.
  induction m as [|a r IH]; simpl; intros Hnd Ix Iy E; [destruct Ix|].
  inversion Hnd as [|? ? Hnotin Hnd']; subst.
  destruct Ix as [<-|Ix], Iy as [<-|Iy].
  - reflexivity.
  - exfalso. apply Hnotin. rewrite E. now apply in_map.
  - exfalso. apply Hnotin. rewrite <- E. now apply in_map.
  - now apply IH.
Qed.

Lemma no_elt_nil {X} (l : list X) : (forall x, ~ In x l) -> l = [].
Proof. destruct l as [|x r]; [reflexivity|]. intros H. exfalso. apply (H x). now left. Qed.

Lemma nodupb_spec l : nodupb l = true <-> NoDup l.
Proof.
  induction l as [|x r IH]; simpl; [split; [constructor|reflexivity]|]. rewrite andb_true_iff, negb_true_iff, IH. split.
  - intros (H1 & H2). constructor; [|exact H2]. intros I. apply mem_spec in I. congruence.
  - intros H. inversion H as [|? ? Hn Hr]; subst. split; [|exact Hr].
    destruct (mem x r) eqn:E; [|reflexivity]. apply mem_spec in E. contradiction.
Qed.

(* ------------------------------------------------------------------ itertools.combinations *)
Lemma combs_spec l : forall k c, In c (combs l k) -> length c = k /\ incl c l /\ (NoDup l -> NoDup c).
Proof.
  induction l as [|x r IH]; intros [|k'] c H; simpl in H.
  - destruct H as [<-|[]]. split; [reflexivity|]. split; [intros ? []|constructor].
  - destruct H.
  - destruct H as [<-|[]]. split; [reflexivity|]. split; [intros ? []|constructor].
  - apply in_app_or in H. destruct H as [H|H].
    + apply in_map_iff in H. destruct H as (c' & <- & H). destruct (IH _ _ H) as (L & I & D).
      split; [simpl; now f_equal|]. split; [intros y [<-|Hy]; [now left|right; now apply I]|].
      intros Hnd. inversion Hnd as [|? ? Hx Hr]; subst. constructor; [intros J; apply Hx; now apply I|now apply D].
    + destruct (IH _ _ H) as (L & I & D). split; [exact L|]. split; [intros y Hy; right; now apply I|].
      intros Hnd. inversion Hnd; subst. now apply D.
Qed.

(** every sub-list selected by a predicate is one of the combinations of its size *)
Lemma combs_filter (f : N -> bool) l : In (filter f l) (combs l (length (filter f l))).
Proof.
  induction l as [|x r IH]; simpl; [now left|].
  destruct (f x); simpl.
  - apply in_or_app. left. now apply in_map.
  - destruct (length (filter f r)) as [|k'] eqn:E.
    + apply length_zero_iff_nil in E. rewrite E. now left.
    + apply in_or_app. right. exact IH.
Qed.

(* ------------------------------------------------------------------ the two insertion sorts are permutations *)
Lemma fold_insert_perm {X} (ins : X -> list X -> list X) :
  (forall x l, Permutation (ins x l) (x :: l)) -> forall l, Permutation (fold_right ins [] l) l.
Proof.
  intros H l. induction l as [|x r IH]; simpl; [constructor|].
  eapply perm_trans; [apply H|now apply perm_skip].
Qed.

Lemma insert_pair_perm x l : Permutation (insert_pair x l) (x :: l).
Proof.
  induction l as [|y r IH]; simpl; [reflexivity|].
  destruct (pair_ltb y x); [|reflexivity].
  eapply perm_trans; [apply perm_skip; exact IH|apply perm_swap].
Qed.

Lemma sort_items_perm m : Permutation (sort_items m) m.
Proof. exact (fold_insert_perm insert_pair insert_pair_perm m). Qed.

Lemma insert_result_perm x l : Permutation (insert_result x l) (x :: l).
Proof.
  induction l as [|y r IH]; simpl; [reflexivity|].
  destruct (result_ltb x y); [reflexivity|].
  eapply perm_trans; [apply perm_skip; exact IH|apply perm_swap].
Qed.

Lemma sort_results_perm l : Permutation (sort_results l) l.
Proof. exact (fold_insert_perm insert_result insert_result_perm l). Qed.

Lemma sort_results_in l m : In m (sort_results l) <-> In m l.
Proof.
  split; apply Permutation_in; [apply sort_results_perm|apply Permutation_sym, sort_results_perm].
Qed.

(* ------------------------------------------------------------------ the [seen] set *)
Lemma pair_eqb_eq a b : pair_eqb a b = true <-> a = b.
Proof.
  destruct a as [a1 a2], b as [b1 b2]. unfold pair_eqb. simpl. rewrite andb_true_iff, !N.eqb_eq.
  split; [intros [-> ->]; reflexivity|intros E; inversion E; auto].
Qed.

Lemma map_eqb_eq a b : map_eqb a b = true <-> a = b.
Proof.
  revert b. induction a as [|x a IH]; intros [|y b]; simpl; split; try discriminate; try reflexivity.
  - intros H. apply andb_prop in H. destruct H as [H1 H2]. apply pair_eqb_eq in H1. apply IH in H2. congruence.
  - intros E. inversion E; subst. apply andb_true_intro. split; [now apply pair_eqb_eq|now apply IH].
Qed.

Lemma seen_spec m acc : seen m acc = true <-> In m acc.
Proof.
  unfold seen. rewrite existsb_exists. split.
  - intros (y & Hy & E). apply map_eqb_eq in E. now subst.
  - intros H. exists m. split; [exact H|now apply map_eqb_eq].
Qed.

Lemma add_new_spec acc cands :
  (forall m, In m (fst (add_new acc cands)) <-> In m acc \/ In m cands) /\
  (snd (add_new acc cands) = true <-> exists m, In m cands /\ ~ In m acc).
Proof.
  revert acc. induction cands as [|m r IH]; intros acc; simpl.
  - split; [intros m; split; [now left|intros [H|[]]; exact H]|]. split; [discriminate|intros (m & [] & _)].
  - destruct (seen m acc) eqn:Es.
    + apply seen_spec in Es. destruct (IH acc) as (H1 & H2). split.
      * intros m'. rewrite H1. split; [intros [H|H]; [now left|right; now right]|]. intros [H|[<-|H]]; auto.
      * rewrite H2. split; intros (m' & Hm' & Hn); [exists m'; split; [now right|exact Hn]|].
        destruct Hm' as [<-|Hm']; [contradiction|exists m'; auto].
    + assert (Hn : ~ In m acc) by (intros I; apply seen_spec in I; congruence).
      destruct (IH (acc ++ [m])) as (H1 & _). destruct (add_new (acc ++ [m]) r) as [a f]. simpl in *. split.
      * intros m'. rewrite H1, in_app_iff. simpl. tauto.
      * split; [intros _|reflexivity]. exists m. split; [now left|exact Hn].
Qed.

(* ------------------------------------------------------------------ the specification *)
Definition common_induced (nm : option nattr -> option nattr -> bool) (em : eattr -> eattr -> bool)
           (pattern host : graph) (m : mapping) : Prop :=
  NoDup (map fst m) /\ NoDup (map snd m) /\
  (forall p h, In (p, h) m ->
     In p (node_ids pattern) /\ In h (node_ids host) /\ nm (label host h) (label pattern p) = true) /\
  (forall p h p' h', In (p, h) m -> In (p', h') m -> p <> p' ->
     match LGraph.adj pattern p p', LGraph.adj host h h' with
     | Some b, Some b' => em b' b = true
     | None, None => True
     | _, _ => False
     end).

(** what the search returns in its two modes, as predicates on (graph a, graph b, result list, size) *)
Definition MaxSpec (nm : option nattr -> option nattr -> bool) (em : eattr -> eattr -> bool)
           (ga gb : graph) (maps : list mapping) (last : nat) : Prop :=
  (forall m, In m maps -> common_induced nm em ga gb m /\ length m = last) /\
  (forall m, common_induced nm em ga gb m -> length m <= last) /\
  (forall m, common_induced nm em ga gb m -> length m = last -> 1 <= last ->
             exists m', In m' maps /\ Permutation m m') /\
  (maps = [] <-> last = 0).

Definition AllSpec (nm : option nattr -> option nattr -> bool) (em : eattr -> eattr -> bool)
           (ga gb : graph) (maps : list mapping) : Prop :=
  (forall m, In m maps -> common_induced nm em ga gb m /\ 1 <= length m) /\
  (forall m, common_induced nm em ga gb m -> 1 <= length m -> exists m', In m' maps /\ Permutation m m').

Section Search.
Variable nm : option nattr -> option nattr -> bool.
Variable em : eattr -> eattr -> bool.
Variables pattern host : graph.
Hypothesis pat_nodup : NoDup (node_ids pattern).

Notation CI := (common_induced nm em pattern host).
Notation PW := (pw (node_ids host) (label pattern) (label host) (LGraph.adj pattern) (LGraph.adj host) nm em true).
Notation LEVEL := (level nm em pattern host).

Lemma ci_iff_pw m : CI m <-> NoDup (map fst m) /\ incl (map fst m) (node_ids pattern) /\ PW m.
Proof.
  split.
  - intros (H1 & H2 & H3 & H4). split; [exact H1|]. split.
    + intros p Hp. apply in_map_iff in Hp. destruct Hp as ([p' h] & <- & I). exact (proj1 (H3 p' h I)).
    + split; [|split; [exact H2|]].
      * intros p h I. exact (proj2 (H3 p h I)).
      * intros [p h] [p' h'] Ix Iy Hne. apply edge_ok_induced. apply (H4 p h p' h' Ix Iy).
        intros ->. apply Hne. now apply (NoDup_map_fst_eq m (p', h) (p', h')).
  - intros (H1 & Hincl & (P1 & P2 & P3)). split; [exact H1|]. split; [exact P2|]. split.
    + intros p h I. split; [|exact (P1 p h I)].
      apply Hincl. change p with (fst (p, h)). now apply in_map.
    + intros p h p' h' Ix Iy Hp. apply edge_ok_induced. apply (P3 (p, h) (p', h') Ix Iy).
      intros E. apply Hp. now injection E.
Qed.

Lemma ci_perm m m' : Permutation m m' -> CI m -> CI m'.
Proof.
  intros P H. apply ci_iff_pw in H. destruct H as (H1 & H2 & H3). apply ci_iff_pw. split; [|split].
  - eapply Permutation_NoDup; [apply Permutation_map; exact P|exact H1].
  - intros p Hp. apply H2. eapply Permutation_in; [apply Permutation_sym, Permutation_map; exact P|exact Hp].
  - eapply pw_perm; eauto.
Qed.

Lemma ci_length m : CI m -> length m <= Nat.min (n_nodes pattern) (n_nodes host).
Proof.
  intros (H1 & H2 & H3 & _). unfold n_nodes. apply Nat.min_glb.
  - rewrite <- (map_length fst (gnodes pattern)), <- (map_length fst m). apply NoDup_incl_length; [exact H1|].
    intros p Hp. apply in_map_iff in Hp. destruct Hp as ([p' h] & <- & I). exact (proj1 (H3 p' h I)).
  - rewrite <- (map_length fst (gnodes host)), <- (map_length snd m). apply NoDup_incl_length; [exact H2|].
    intros h Hh. apply in_map_iff in Hh. destruct Hh as ([p h'] & <- & I). exact (proj1 (proj2 (H3 p h' I))).
Qed.

Lemma level_sound k m : In m (LEVEL k) -> CI m /\ length m = k.
Proof.
  unfold level. intros H. apply in_flat_map in H. destruct H as (c & Hc & Hm).
  apply in_map_iff in Hm. destruct Hm as (m0 & <- & Hm0).
  destruct (monos_pw _ _ _ _ _ _ _ _ (adj_sym pattern) (adj_sym host) c m0 Hm0) as (Hfst & Hv).
  destruct (combs_spec _ _ _ Hc) as (Lc & Ic & Dc).
  split.
  - apply (ci_perm m0); [apply Permutation_sym, sort_items_perm|].
    apply ci_iff_pw. split; [|split; [|exact Hv]]; rewrite Hfst.
    + eapply Permutation_NoDup; [apply Permutation_rev|exact (Dc pat_nodup)].
    + intros p Hp. apply Ic. now apply in_rev.
  - now rewrite (Permutation_length (sort_items_perm m0)), <- (map_length fst m0), Hfst, rev_length.
Qed.

Lemma level_complete m : CI m -> exists m', In m' (LEVEL (length m)) /\ Permutation m m'.
Proof.
  intros H. apply ci_iff_pw in H. destruct H as (Hnd & Hincl & Hpw).
  set (c := filter (fun p => mem p (map fst m)) (node_ids pattern)).
  assert (Pc : Permutation (map fst m) c).
  { apply NoDup_Permutation; [exact Hnd|apply NoDup_filter; exact pat_nodup|].
    intros p. unfold c. rewrite filter_In, mem_spec. split; [|tauto]. intros I. split; [now apply Hincl|exact I]. }
  destruct (pw_monos _ _ _ _ _ _ _ _ c m Pc Hpw) as (m0 & Hin & P0).
  exists (sort_items m0). split.
  - apply in_flat_map. exists c. split; [|now apply in_map].
    rewrite <- (map_length fst m), (Permutation_length Pc). apply combs_filter.
  - eapply perm_trans; [exact P0|apply Permutation_sym, sort_items_perm].
Qed.

Lemma level_nonempty m : CI m -> LEVEL (length m) <> [].
Proof. intros Hm E. destruct (level_complete m Hm) as (m' & I & _). rewrite E in I. destruct I. Qed.

Lemma no_ci_above b : (forall j, b < j <= Nat.min (n_nodes pattern) (n_nodes host) -> LEVEL j = []) ->
  forall m, CI m -> length m <= b.
Proof.
  intros Hall m Hm. destruct (le_lt_dec (length m) b) as [Hle|Hlt]; [exact Hle|].
  elim (level_nonempty m Hm). exact (Hall _ (conj Hlt (ci_length m Hm))).
Qed.

(* ---- the descending loop ---- *)
Lemma upto_S (P : nat -> Prop) lo k : P (S k) -> (forall j, lo <= j <= k -> P j) -> forall j, lo <= j <= S k -> P j.
Proof. intros HS H j Hj. destruct (Nat.eq_dec j (S k)) as [->|Hn]; [exact HS|apply H; lia]. Qed.

Lemma search_loop_mcs_step k tried :
  search_loop nm em true pattern host (S k) [] 0 tried =
  match LEVEL (S k) with
  | [] => search_loop nm em true pattern host k [] 0 (tried + length (combs (node_ids pattern) (S k)))
  | _ :: _ => (fst (add_new [] (LEVEL (S k))), S k, tried + length (combs (node_ids pattern) (S k)))
  end.
Proof.
  (* with best = 0 the test k < best at the head of the loop is off *)
  cbn [search_loop andb negb Nat.eqb]. destruct (LEVEL (S k)) as [|m r]; [reflexivity|].
  simpl. destruct (add_new [m] r). reflexivity.
Qed.

Lemma search_loop_all_step k acc best tried :
  search_loop nm em false pattern host (S k) acc best tried =
  search_loop nm em false pattern host k (fst (add_new acc (LEVEL (S k))))
    (if snd (add_new acc (LEVEL (S k))) then S k else best) (tried + length (combs (node_ids pattern) (S k))).
Proof. cbn [search_loop andb]. destruct (add_new acc (LEVEL (S k))) as [a []]; reflexivity. Qed.

Lemma search_loop_mcs k : forall tried acc' best' tried',
  search_loop nm em true pattern host k [] 0 tried = (acc', best', tried') ->
  (best' = 0 /\ acc' = [] /\ forall j, 1 <= j <= k -> LEVEL j = []) \/
  (1 <= best' <= k /\ (forall m, In m acc' <-> In m (LEVEL best')) /\ LEVEL best' <> [] /\
   forall j, best' < j <= k -> LEVEL j = []).
Proof.
  induction k as [|k' IH]; intros tried acc' best' tried' E.
  - inversion E. left. split; [reflexivity|]. split; [reflexivity|]. intros j Hj. lia.
  - rewrite search_loop_mcs_step in E. destruct (LEVEL (S k')) as [|m0 r] eqn:El.
    + destruct (IH _ _ _ _ E) as [(Hb & Hacc & Hall)|(Hb & Hacc & Hne & Hall)]; [left|right].
      * split; [exact Hb|]. split; [exact Hacc|]. now apply upto_S.
      * split; [lia|]. split; [exact Hacc|]. split; [exact Hne|]. now apply (upto_S (fun j => LEVEL j = [])).
    + injection E as <- <- _. right. rewrite El. split; [lia|]. split; [|split; [discriminate|intros j Hj; lia]].
      change (forall m, In m (fst (add_new [] (m0 :: r))) <-> In m (m0 :: r)).
      intros m. rewrite (proj1 (add_new_spec _ _)). simpl. tauto.
Qed.

(** with every stored mapping larger than the levels still to come, a non-empty level finds something new *)
Lemma add_new_found acc k : (forall m, In m acc -> k < length m) -> LEVEL k <> [] -> snd (add_new acc (LEVEL k)) = true.
Proof.
  intros Hacc Hne. apply add_new_spec. destruct (LEVEL k) as [|m r] eqn:El; [now elim Hne|]. exists m. split; [now left|].
  intros I. pose proof (Hacc m I). assert (length m = k) by (apply (level_sound k m); rewrite El; now left). lia.
Qed.

Lemma search_loop_all k : forall acc best tried acc' best' tried',
  (forall m, In m acc -> k < length m) ->
  search_loop nm em false pattern host k acc best tried = (acc', best', tried') ->
  (forall m, In m acc' <-> In m acc \/ exists j, 1 <= j <= k /\ In m (LEVEL j)) /\
  (((forall j, 1 <= j <= k -> LEVEL j = []) /\ best' = best) \/
   (exists b, 1 <= b <= k /\ LEVEL b <> [] /\ (forall j, 1 <= j < b -> LEVEL j = []) /\ best' = b)).
Proof.
  induction k as [|k' IH]; intros acc best tried acc' best' tried' Hacc E.
  - inversion E; subst. split; [|left; split; [intros j Hj; lia|reflexivity]].
    intros m. split; [auto|]. intros [H|(j & Hj & _)]; [exact H|lia].
  - rewrite search_loop_all_step in E.
    assert (Hacc1 : forall m, In m (fst (add_new acc (LEVEL (S k')))) -> k' < length m).
    { intros m Hm. apply add_new_spec in Hm. destruct Hm as [Hm|Hm]; [pose proof (Hacc m Hm); lia|].
      rewrite (proj2 (level_sound _ _ Hm)). lia. }
    destruct (IH _ _ _ _ _ _ Hacc1 E) as (M & B). split.
    + intros m. rewrite (M m), (proj1 (add_new_spec _ _)). split.
      * intros [[H|H]|(j & Hj & H)]; [now left|right; exists (S k')|right; exists j]; (split; [lia|exact H]).
      * intros [H|(j & Hj & H)]; [now left; left|].
        destruct (Nat.eq_dec j (S k')) as [->|Hn]; [left; now right|right; exists j; split; [lia|exact H]].
    + destruct B as [(Hall & Hb)|(b & Hb & Hn & Hall & Eb)];
        [|right; exists b; split; [lia|]; split; [exact Hn|]; split; [exact Hall|exact Eb]].
      destruct (LEVEL (S k')) as [|m0 r] eqn:El.
      * left. split; [now apply upto_S|exact Hb].
      * right. exists (S k'). rewrite El. split; [lia|]. split; [discriminate|]. split; [intros j Hj; apply Hall; lia|].
        rewrite <- El, (add_new_found acc (S k') Hacc) in Hb; [exact Hb|rewrite El; discriminate].
Qed.

(* ---- _search_subgraphs ---- *)
Theorem search_mcs_spec maps last tried :
  search_subgraphs nm em pattern host true = (maps, last, tried) -> MaxSpec nm em pattern host maps last.
Proof.
  unfold search_subgraphs.
  destruct (search_loop nm em true pattern host (Nat.min (n_nodes pattern) (n_nodes host)) [] 0 0) as [[acc best] tr] eqn:E.
  cbn [andb]. intros Er.
  destruct (search_loop_mcs _ _ _ _ _ E) as [(-> & -> & Hall)|(Hb & Hacc & Hne & Hall)].
  - injection Er as <- <- _.
    split; [intros m []|]. split; [exact (no_ci_above 0 Hall)|]. split; [intros m _ _ H0; inversion H0|]. split; reflexivity.
  - destruct best as [|b]; [destruct Hb as [Hb _]; inversion Hb|]. cbn [Nat.eqb negb] in Er. injection Er as <- <- _.
    assert (Hin : forall m, In m (sort_results (filter (fun m0 : mapping => length m0 =? S b) acc)) <-> In m (LEVEL (S b))).
    { intros m. rewrite sort_results_in, filter_In, Hacc. split; [intros (I & _); exact I|]. intros I. split; [exact I|].
      apply Nat.eqb_eq. exact (proj2 (level_sound (S b) m I)). }
    split; [intros m Hm; apply (level_sound (S b) m); now apply Hin|]. split; [exact (no_ci_above (S b) Hall)|]. split.
    + intros m Hm El _. destruct (level_complete m Hm) as (m' & I & P). rewrite El in I.
      exists m'. split; [now apply Hin|exact P].
    + split; [|discriminate]. intros E0. destruct (LEVEL (S b)) as [|m0 r] eqn:El; [now elim Hne|].
      assert (I : In m0 (@nil mapping)) by (rewrite <- E0; apply Hin; now left). destruct I.
Qed.

Theorem search_all_spec maps last tried :
  search_subgraphs nm em pattern host false = (maps, last, tried) -> AllSpec nm em pattern host maps.
Proof.
  unfold search_subgraphs.
  destruct (search_loop nm em false pattern host (Nat.min (n_nodes pattern) (n_nodes host)) [] 0 0) as [[acc best] tr] eqn:E.
  cbn [andb]. intros Er. injection Er as <- _ _.
  pose proof (proj1 (search_loop_all _ _ _ _ _ _ _ (fun m (F : In m []) => match F with end) E)) as Hacc.
  split.
  - intros m Hm. apply sort_results_in, Hacc in Hm. destruct Hm as [[]|(j & Hj & Hm)].
    destruct (level_sound j m Hm) as (G1 & G2). split; [exact G1|]. rewrite G2. exact (proj1 Hj).
  - intros m Hm Hl. destruct (level_complete m Hm) as (m' & I & P).
    exists m'. split; [|exact P]. apply sort_results_in, Hacc. right. exists (length m).
    split; [exact (conj Hl (ci_length m Hm))|exact I].
Qed.

End Search.
