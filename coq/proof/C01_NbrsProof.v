(** C01 — proofs about the 'neighbors' attribute computed inside the model (model/C01_Nbrs.v) *)
From Coq Require Import List NArith ZArith Bool Lia Arith Sorting.Sorted Permutation.
From SK Require Import lib.LGraph model.C01_Model model.C01_String model.C01_Nbrs.
Import ListNotations.
Local Open Scope N_scope.

(** * the order *)
Lemma lex_leb_cons x a y b : lex_leb (x :: a) (y :: b) = true <-> (x < y)%N \/ (x = y /\ lex_leb a b = true).
Proof.
  cbn [lex_leb]. destruct (N.ltb_spec x y) as [L|G]; [split; auto|].
  destruct (N.ltb_spec y x) as [L'|G']; split; try discriminate.
  - intros [F|[E _]]; lia.
  - intros H. right. split; [lia|exact H].
  - intros [F|[_ H]]; [lia|exact H].
Qed.

Lemma lex_leb_total a b : lex_leb a b = true \/ lex_leb b a = true.
Proof.
  revert b. induction a as [|x a IH]; intros b; [left; reflexivity|].
  destruct b as [|y b]; [right; reflexivity|]. cbn [lex_leb].
  destruct (N.ltb_spec x y); [left; reflexivity|]. destruct (N.ltb_spec y x); [right; reflexivity|]. apply IH.
Qed.

Lemma lex_leb_refl a : lex_leb a a = true.
Proof. induction a as [|x a IH]; [reflexivity|]. cbn [lex_leb]. rewrite N.ltb_irrefl. exact IH. Qed.

Lemma lex_leb_trans a b c : lex_leb a b = true -> lex_leb b c = true -> lex_leb a c = true.
Proof.
  revert b c. induction a as [|x a IH]; intros b c; [reflexivity|].
  destruct b as [|y b]; [discriminate|]. destruct c as [|z c]; [intros _ H; cbn in H; discriminate|].
  intros H1 H2. apply lex_leb_cons in H1, H2. apply lex_leb_cons.
  destruct H1 as [L1|[-> H1]], H2 as [L2|[-> H2]]; [left; lia|left; exact L1|left; exact L2|].
  right. split; [reflexivity|exact (IH b c H1 H2)].
Qed.

Lemma lex_leb_antisym a b : lex_leb a b = true -> lex_leb b a = true -> a = b.
Proof.
  revert b. induction a as [|x a IH]; intros b; destruct b as [|y b]; try reflexivity; try discriminate.
  intros H1 H2. apply lex_leb_cons in H1, H2.
  destruct H1 as [L1|[-> H1]], H2 as [L2|[E H2]]; try lia. f_equal. apply IH; assumption.
Qed.

Definition sle (x y : N) : Prop := sym_leb x y = true.
Lemma sle_total x y : sle x y \/ sle y x.
Proof. apply lex_leb_total. Qed.
Lemma sle_trans x y z : sle x y -> sle y z -> sle x z.
Proof. apply lex_leb_trans. Qed.
Lemma sle_refl x : sle x x.
Proof. apply lex_leb_refl. Qed.

(** * sorted() *)
Lemma insert_perm x l : Permutation (insert_sym x l) (x :: l).
Proof.
  induction l as [|y l IH]; [reflexivity|]. cbn [insert_sym]. destruct (sym_leb x y); [reflexivity|].
  rewrite IH. apply perm_swap.
Qed.

Lemma insert_sorted x l : Sorted sle l -> Sorted sle (insert_sym x l).
Proof.
  induction l as [|y l IH]; intros S; [repeat constructor|]. cbn [insert_sym].
  destruct (sym_leb x y) eqn:E.
  - constructor; [exact S|]. constructor. exact E.
  - inversion S as [|? ? S' Hd]; subst. constructor; [apply IH; exact S'|].
    assert (sle y x) as Hyx by (destruct (sle_total x y) as [K|K]; [unfold sle in K; congruence|exact K]).
    destruct l as [|z l]; [constructor; exact Hyx|]. cbn [insert_sym]. destruct (sym_leb x z); constructor; [exact Hyx|].
    inversion Hd; assumption.
Qed.

Lemma sort_perm l : Permutation (sort_syms l) l.
Proof. induction l as [|x l IH]; [reflexivity|]. cbn [sort_syms fold_right]. rewrite insert_perm. constructor. exact IH. Qed.
Lemma sort_sorted l : Sorted sle (sort_syms l).
Proof. induction l as [|x l IH]; [constructor|]. cbn [sort_syms fold_right]. apply insert_sorted. exact IH. Qed.
Lemma sort_strongly_sorted l : StronglySorted sle (sort_syms l).
Proof. apply Sorted_StronglySorted; [intros x y z; apply sle_trans|apply sort_sorted]. Qed.

Lemma sorted_perm_eq {X} (le : X -> X -> Prop) : (forall x, le x x) -> (forall x y, le x y -> le y x -> x = y) ->
  forall l1 l2, StronglySorted le l1 -> StronglySorted le l2 -> Permutation l1 l2 -> l1 = l2.
Proof.
  intros Rf As. induction l1 as [|x l1 IH]; intros l2 S1 S2 P.
  - apply Permutation_nil in P. subst. reflexivity.
  - destruct l2 as [|y l2]; [apply Permutation_sym, Permutation_nil in P; discriminate|].
    inversion S1 as [|? ? S1' F1]; subst. inversion S2 as [|? ? S2' F2]; subst.
    assert (x = y) as ->.
    { apply As.
      - assert (In y (x :: l1)) as I by (apply (Permutation_in _ (Permutation_sym P)); left; reflexivity).
        destruct I as [->|I]; [apply Rf|]. rewrite Forall_forall in F1. apply (F1 y I).
      - assert (In x (y :: l2)) as I by (apply (Permutation_in _ P); left; reflexivity).
        destruct I as [->|I]; [apply Rf|]. rewrite Forall_forall in F2. apply (F2 x I). }
    f_equal. apply IH; [exact S1'|exact S2'|exact (Permutation_cons_inv P)].
Qed.

(** the result does not depend on the order in which RDKit lists the neighbours, as far as the BYTES of the symbols go:
    two codes may share their bytes, so the comparison is made on the byte strings, where the order is antisymmetric *)
Lemma sorted_perm_bytes l1 l2 : StronglySorted sle l1 -> StronglySorted sle l2 -> Permutation l1 l2 ->
  map sym_bytes l1 = map sym_bytes l2.
Proof.
  assert (forall l, StronglySorted sle l -> StronglySorted (fun a b => lex_leb a b = true) (map sym_bytes l)) as Sm.
  { induction 1 as [|x l S IH F]; cbn [map]; constructor; [exact IH|].
    apply Forall_forall. intros b Ib. apply in_map_iff in Ib. destruct Ib as (y & <- & Iy).
    rewrite Forall_forall in F. apply (F y Iy). }
  intros S1 S2 P.
  apply (sorted_perm_eq (fun a b => lex_leb a b = true) lex_leb_refl lex_leb_antisym); [apply Sm; exact S1|apply Sm; exact S2|].
  apply Permutation_map. exact P.
Qed.

Lemma sort_syms_order_independent l1 l2 : Permutation l1 l2 -> map sym_bytes (sort_syms l1) = map sym_bytes (sort_syms l2).
Proof.
  intros P. apply sorted_perm_bytes; try apply sort_strongly_sorted.
  rewrite (sort_perm l1), (sort_perm l2). exact P.
Qed.

(** * the molecule with the computed lists *)
Lemma nth_error_enumerate_from {X} (l : list X) s i :
  nth_error (combine (seq s (length l)) l) i = option_map (fun a => ((s + i)%nat, a)) (nth_error l i).
Proof.
  revert s i. induction l as [|x l IH]; intros s i; [destruct i; reflexivity|].
  destruct i as [|i]; cbn; [rewrite Nat.add_0_r; reflexivity|]. rewrite IH. rewrite Nat.add_succ_r. reflexivity.
Qed.

Lemma fill_nb_nth m i :
  nth_error (rm_atoms (fill_nb m)) i = option_map (fun a => fill_atom m (i, a)) (nth_error (rm0_atoms m) i).
Proof.
  unfold fill_nb. cbn [rm_atoms]. rewrite nth_error_map. unfold enumerate. rewrite nth_error_enumerate_from.
  destruct (nth_error (rm0_atoms m) i); reflexivity.
Qed.

Lemma nbr_idx_in bs i j : In j (nbr_idx bs i) <-> exists o, In (i, j, o) bs \/ In (j, i, o) bs.
Proof.
  unfold nbr_idx. rewrite in_flat_map. split.
  - intros ([[x y] o] & Ib & Ij). destruct (Nat.eqb_spec x i) as [->|Nx].
    + destruct Ij as [<-|[]]. exists o. left. exact Ib.
    + destruct (Nat.eqb_spec y i) as [->|Ny]; [|destruct Ij]. destruct Ij as [<-|[]]. exists o. right. exact Ib.
  - intros (o & [Ib|Ib]).
    + exists (i, j, o). split; [exact Ib|]. rewrite Nat.eqb_refl. left. reflexivity.
    + exists (j, i, o). split; [exact Ib|]. destruct (Nat.eqb_spec j i) as [->|N]; [left; reflexivity|]. rewrite Nat.eqb_refl. left. reflexivity.
Qed.

(** C01_neighbors: what MolToGraph stores under 'neighbors' *)
Theorem neighbors_spec (m : rmol0) i a :
  nth_error (rm_atoms (fill_nb m)) i = Some a ->
  exists a0, nth_error (rm0_atoms m) i = Some a0 /\
    ra_el a = r0_el a0 /\ ra_arom a = r0_arom a0 /\ ra_hs a = r0_hs a0 /\ ra_ch a = r0_ch a0 /\ ra_map a = r0_map a0 /\
    Sorted sle (ra_nb a) /\
    Permutation (ra_nb a) (flat_map (sym_at m) (nbr_idx (rm0_bonds m) i)).
Proof.
  rewrite fill_nb_nth. destruct (nth_error (rm0_atoms m) i) as [a0|]; [|discriminate]. cbn. intros E. inversion E; subst a. clear E.
  exists a0. cbn. repeat (split; [reflexivity|]). split; [apply sort_sorted|apply sort_perm].
Qed.

Lemma fill_nb_bonds m : rm_bonds (fill_nb m) = rm0_bonds m.
Proof. reflexivity. Qed.

(** ... and therefore every node of the molecule graph (and, through ITSConstruction, both halves of typesGH) *)
Theorem graph_neighbors (m : rmol0) k g :
  In (k, g) (mapped_nodes (fill_nb m)) ->
  exists i a0, nth_error (rm0_atoms m) i = Some a0 /\ k = r0_map a0 /\ k <> 0 /\
               g = GN (r0_el a0) (r0_arom a0) (r0_hs a0) (r0_ch a0) (Some (nb_syms m i)) (Z.of_N k).
Proof.
  unfold mapped_nodes. rewrite in_flat_map. intros (a & Ia & Ik).
  apply In_nth_error in Ia. destruct Ia as (i & Ia). rewrite fill_nb_nth in Ia.
  destruct (nth_error (rm0_atoms m) i) as [a0|] eqn:E0; [|discriminate]. cbn in Ia. inversion Ia; subst a. clear Ia.
  unfold is_mapped, fill_atom in Ik. cbn in Ik. destruct (N.eqb_spec (r0_map a0) 0) as [Z|NZ]; cbn in Ik; [destruct Ik|].
  destruct Ik as [Ik|[]]. inversion Ik; subst. exists i, a0. repeat split; auto.
Qed.

(** non-vacuity: ethanol with an unmapped hydroxyl hydrogen written as an atom: O's list is ["C", "H"], Cl sorts before N
    although its code is larger *)
Definition ex_m0 : rmol0 :=
  RM0 [RA0 70 false 3%Z 0%Z 1; RA0 70 false 2%Z 0%Z 2; RA0 82 false 0%Z 0%Z 3; RA0 2 false 0%Z 0%Z 0]
      [(0, 1, 2%Z); (1, 2, 2%Z); (2, 3, 2%Z)]%nat.
Example C01_neighbors_nonvacuous :
  map ra_nb (rm_atoms (fill_nb ex_m0)) = [[70]; [70; 82]; [70; 2]; [82]] /\
  sort_syms [81; 17263; 2; 70; 0; 1] = [1; 0; 70; 17263; 2; 81] /\
  sym_bytes 17263 = [67; 108] /\ sym_leb 17263 81 = true /\ (81 <? 17263) = true /\
  (exists g, In (3, g) (mapped_nodes (fill_nb ex_m0)) /\ g_nb g = Some [70; 2]).
Proof.
  split; [reflexivity|]. split; [reflexivity|]. split; [reflexivity|]. split; [reflexivity|]. split; [reflexivity|].
  eexists. split; [cbn; right; right; left; reflexivity|reflexivity].
Qed.
