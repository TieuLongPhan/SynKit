(** C10 — proofs: nx.relabel_nodes(G, mapping, copy=True) with a mapping that is injective on the nodes of G,
    seen through [label] / [adj]. *)
From Coq Require Import List NArith ZArith Bool Lia.
From SK Require Import lib.LGraph lib.StrJoin model.C10_Model proof.C10_Views proof.C10_Build proof.C10_Copy.
Import ListNotations.
Local Open Scope Z_scope.

Lemma NoDup_map_inj_in {A B} (f : A -> B) l :
  (forall a b, In a l -> In b l -> f a = f b -> a = b) -> NoDup l -> NoDup (map f l).
Proof.
  induction l as [|x r IH]; intros Hinj Hnd; [constructor|]. inversion Hnd as [|? ? Hnot Hnd']; subst. simpl. constructor.
  - intros Hin. apply in_map_iff in Hin. destruct Hin as (y & E & Hy).
    assert (y = x) as -> by (apply Hinj; [right; exact Hy|left; reflexivity|exact E]). contradiction.
  - apply IH; [|exact Hnd']. intros a b Ha Hb. apply Hinj; right; assumption.
Qed.

Lemma fold_set_label (l : list (N * natt)) : forall (G : gr) k, NoDup (map fst l) ->
  label (fold_left (fun acc p => set_node acc (fst p) (fun _ => snd p)) l G) k =
  match assoc k l with Some a => option_map (fun _ => a) (label G k) | None => label G k end.
Proof.
  induction l as [|[n a0] r IH]; intros G k Hnd; [reflexivity|]. inversion Hnd as [|? ? Hnot Hnd']; subst.
  cbn [fold_left fst snd]. rewrite IH by exact Hnd'. simpl assoc. rewrite label_set_node.
  destruct (N.eqb_spec k n) as [->|Hne].
  - apply assoc_none_iff in Hnot. rewrite Hnot. reflexivity.
  - reflexivity.
Qed.
Lemma fold_set_gedges (l : list (N * natt)) : forall G : gr,
  gedges (fold_left (fun acc p => set_node acc (fst p) (fun _ => snd p)) l G) = gedges G.
Proof. induction l as [|p r IH]; intros G; simpl; [reflexivity|]. rewrite IH. reflexivity. Qed.
Lemma fold_set_gwf (l : list (N * natt)) : forall G : gr, gwf G ->
  gwf (fold_left (fun acc p => set_node acc (fst p) (fun _ => snd p)) l G).
Proof. induction l as [|p r IH]; intros G W; simpl; [exact W|]. apply IH, gwf_set_node, W. Qed.

Section Relabel.
Variable f : N -> N.
Variable ids : list N.
Hypothesis ids_nd : NoDup ids.
Hypothesis finj : forall a b, In a ids -> In b ids -> f a = f b -> a = b.

(** inverse of f on ids *)
Definition finv (k : N) : option N := assoc k (map (fun n => (f n, n)) ids).
Lemma finv_keys : NoDup (map fst (map (fun n => (f n, n)) ids)).
Proof. rewrite map_map. simpl. apply NoDup_map_inj_in; assumption. Qed.
Lemma finv_f n : In n ids -> finv (f n) = Some n.
Proof.
  intros Hn. unfold finv. apply assoc_nodup_in; [exact finv_keys|]. apply in_map_iff. exists n. auto.
Qed.
Lemma finv_some k n : finv k = Some n -> k = f n /\ In n ids.
Proof.
  unfold finv. intros H. apply assoc_in in H. apply in_map_iff in H. destruct H as (n' & E & Hn). inversion E; subst. auto.
Qed.

Variable g : gr.
Hypothesis W : gwf g.
Hypothesis g_ids : node_ids g = ids.

Definition rl_nodes : list (N * natt) := map (fun p : N * natt => (f (fst p), snd p)) (gnodes g).
Lemma rl_keys : NoDup (map fst rl_nodes).
Proof.
  unfold rl_nodes. rewrite map_map. simpl. rewrite <- (map_map fst f). fold (node_ids g). rewrite g_ids.
  apply NoDup_map_inj_in; assumption.
Qed.
Lemma rl_assoc k : assoc k rl_nodes = match finv k with Some n => label g n | None => None end.
Proof.
  destruct (assoc k rl_nodes) as [a|] eqn:E.
  - apply assoc_in in E. unfold rl_nodes in E. apply in_map_iff in E. destruct E as ([n a'] & E & Hin). simpl in E.
    inversion E; subst. assert (In n ids) as Hn by (rewrite <- g_ids; apply (in_map fst _ _ Hin)).
    rewrite (finv_f n Hn). symmetry. apply assoc_nodup_in; [apply (gwf_nd g W)|exact Hin].
  - destruct (finv k) as [n|] eqn:F; [|reflexivity]. apply finv_some in F. destruct F as [-> Hn].
    destruct (label g n) as [a|] eqn:L; [|reflexivity]. exfalso. apply assoc_in in L.
    apply assoc_none_iff in E. apply E. unfold rl_nodes. rewrite map_map. simpl. apply in_map_iff. exists (n, a). auto.
Qed.

Definition rl_d (k l : N) : option eatt :=
  match finv k, finv l with Some u, Some v => adj g u v | _, _ => None end.
Lemma rl_d_sym k l : rl_d k l = rl_d l k.
Proof. unfold rl_d. destruct (finv k), (finv l); try reflexivity. apply adj_sym. Qed.

Definition rl_g2 : gr :=
  fold_left (fun acc p => set_node acc (fst p) (fun _ => snd p)) rl_nodes
            (fold_left (nstep (fun _ => na_empty)) rl_nodes g_empty).
Lemma rl_g2_label k : label rl_g2 k = assoc k rl_nodes.
Proof.
  unfold rl_g2. rewrite fold_set_label by exact rl_keys. rewrite fold_nstep_label by exact rl_keys.
  destruct (assoc k rl_nodes); reflexivity.
Qed.
Lemma rl_g2_gedges : gedges rl_g2 = [].
Proof. unfold rl_g2. rewrite fold_set_gedges, fold_nstep_gedges. reflexivity. Qed.
Lemma rl_g2_gwf : gwf rl_g2.
Proof. unfold rl_g2. apply fold_set_gwf, fold_nstep_gwf, gwf_empty. Qed.

Definition rl_pairs : list (N * N) := map (fun e : N * N * eatt => (f (fst (fst e)), f (snd (fst e)))) (edges_iter g).

Lemma edges_iter_ends a b x : In (a, b, x) (edges_iter g) -> In a ids /\ In b ids.
Proof.
  intros H. rewrite <- g_ids. destruct (C10_Build.edges_iter_ends g a b x W H) as [H1 H2]. apply has_node_in in H1, H2. auto.
Qed.

Lemma nx_relabel_fold (m : list (N * N)) : (forall n, mapget m n = f n) ->
  nx_relabel m g = fold_left (estep rl_d) rl_pairs rl_g2.
Proof.
  intros Hm. unfold nx_relabel, rl_pairs. rewrite fold_left_map'.
  assert (fold_left (fun acc (p : N * natt) => add_node acc (mapget m (fst p)) na_empty) (gnodes g) g_empty
          = fold_left (nstep (fun _ => na_empty)) rl_nodes g_empty) as E1.
  { unfold rl_nodes. rewrite fold_left_map'. apply fold_left_ext_in. intros acc p _. unfold nstep. simpl. rewrite Hm. reflexivity. }
  assert (forall G : gr, fold_left (fun acc (p : N * natt) => set_node acc (mapget m (fst p)) (fun _ => snd p)) (gnodes g) G
          = fold_left (fun acc p => set_node acc (fst p) (fun _ => snd p)) rl_nodes G) as E2.
  { intros G. unfold rl_nodes. rewrite fold_left_map'. apply fold_left_ext_in. intros acc p _. simpl. rewrite Hm. reflexivity. }
  rewrite E2, E1. fold rl_g2.
  apply fold_left_ext_in. intros acc [[a b] x] Hin. unfold estep. simpl. rewrite !Hm.
  destruct (edges_iter_ends a b x Hin) as [Ha Hb]. unfold rl_d. rewrite (finv_f a Ha), (finv_f b Hb).
  rewrite (edges_iter_data g a b x W Hin). reflexivity.
Qed.

Variable m : list (N * N).
Hypothesis Hm : forall n, mapget m n = f n.
Let R := nx_relabel m g.

Lemma relabel_gwf : gwf R.
Proof. unfold R. rewrite (nx_relabel_fold m Hm). apply fold_estep_gwf, rl_g2_gwf. Qed.

Lemma relabel_label k : label R k = match finv k with Some n => label g n | None => None end.
Proof.
  unfold R. rewrite (nx_relabel_fold m Hm). unfold label at 1. rewrite fold_estep_node_ids.
  - fold (label rl_g2 k). rewrite rl_g2_label. apply rl_assoc.
  - intros e He. unfold rl_pairs in He. apply in_map_iff in He. destruct He as ([[a b] x] & <- & Hin). simpl.
    destruct (edges_iter_ends a b x Hin) as [Ha Hb]. unfold has_node. rewrite !rl_g2_label, !rl_assoc.
    rewrite (finv_f a Ha), (finv_f b Hb).
    rewrite <- g_ids in Ha, Hb. apply has_node_in, has_node_label in Ha. apply has_node_in, has_node_label in Hb.
    destruct Ha as [x1 ->]. destruct Hb as [x2 ->]. auto.
Qed.

Lemma relabel_adj k l : adj R k l = rl_d k l.
Proof.
  unfold R. rewrite (nx_relabel_fold m Hm). rewrite (fold_estep_adj rl_d rl_d_sym).
  - unfold adj. rewrite rl_g2_gedges. simpl. destruct (pmatch k l rl_pairs) eqn:PM; [reflexivity|].
    destruct (rl_d k l) as [x|] eqn:D; [|reflexivity]. exfalso. unfold rl_d in D.
    destruct (finv k) as [u|] eqn:Fk; [|discriminate]. destruct (finv l) as [v|] eqn:Fl; [|discriminate].
    apply finv_some in Fk, Fl. destruct Fk as [-> Hu]. destruct Fl as [-> Hv].
    destruct (adj_in_edges_iter g u v x W D) as (a & b & Hin & P).
    assert (pmatch (f u) (f v) rl_pairs = true); [|congruence].
    unfold pmatch. apply existsb_exists. exists (f a, f b). split.
    + unfold rl_pairs. apply in_map_iff. exists (a, b, x). auto.
    + simpl. apply pair_eqb_spec in P. apply pair_eqb_spec. destruct P as [[-> ->]|[-> ->]]; auto.
  - left. unfold adj. rewrite rl_g2_gedges. reflexivity.
Qed.

Lemma relabel_lookups :
  (forall k, has_node R k = true <-> exists n, In n ids /\ k = f n) /\
  (forall n, In n ids -> label R (f n) = label g n) /\
  (forall u v, In u ids -> In v ids -> adj R (f u) (f v) = adj g u v) /\
  (forall k l x, adj R k l = Some x -> exists u v, In u ids /\ In v ids /\ k = f u /\ l = f v /\ adj g u v = Some x).
Proof.
  split; [|split; [|split]].
  - intros k. unfold has_node. rewrite relabel_label. split.
    + destruct (finv k) as [n|] eqn:F; [|discriminate]. intros _. apply finv_some in F. exists n. tauto.
    + intros (n & Hn & ->). rewrite (finv_f n Hn). rewrite <- g_ids in Hn. apply has_node_in, has_node_label in Hn.
      destruct Hn as [a ->]. reflexivity.
  - intros n Hn. rewrite relabel_label, (finv_f n Hn). reflexivity.
  - intros u v Hu Hv. rewrite relabel_adj. unfold rl_d. rewrite (finv_f u Hu), (finv_f v Hv). reflexivity.
  - intros k l x A. rewrite relabel_adj in A. unfold rl_d in A.
    destruct (finv k) as [u|] eqn:Fk; [|discriminate]. destruct (finv l) as [v|] eqn:Fl; [|discriminate].
    apply finv_some in Fk, Fl. exists u, v. tauto.
Qed.
End Relabel.

(** ** the renumbering NXToGML.transform uses: old id -> position (from 1) in the node order of L *)
Lemma enum_from_assoc l : forall k n, In n l -> exists j, assoc n (enum_from k l) = Some j /\ (k <= j)%N.
Proof.
  induction l as [|x r IH]; intros k n Hn; [destruct Hn|]. simpl.
  destruct (N.eqb_spec n x) as [->|Hne]; [exists k; split; [reflexivity|lia]|].
  destruct Hn as [->|Hn]; [congruence|]. destruct (IH (N.succ k) n Hn) as (j & E & Hj). exists j. split; [exact E|lia].
Qed.
Lemma enum_from_inj l : forall k a b, NoDup l -> In a l -> In b l ->
  mapget (enum_from k l) a = mapget (enum_from k l) b -> a = b.
Proof.
  induction l as [|x r IH]; intros k a b Hnd Ha Hb; [destruct Ha|]. inversion Hnd as [|? ? Hnot Hnd']; subst.
  unfold mapget. simpl. destruct (N.eqb_spec a x) as [->|Hax]; destruct (N.eqb_spec b x) as [->|Hbx]; try reflexivity.
  - destruct Hb as [->|Hb]; [congruence|]. destruct (enum_from_assoc r (N.succ k) b Hb) as (j & E & Hj). rewrite E. intros ->. lia.
  - destruct Ha as [->|Ha]; [congruence|]. destruct (enum_from_assoc r (N.succ k) a Ha) as (j & E & Hj). rewrite E. intros <-. lia.
  - destruct Ha as [->|Ha]; [congruence|]. destruct Hb as [->|Hb]; [congruence|]. apply (IH (N.succ k) a b Hnd' Ha Hb).
Qed.
