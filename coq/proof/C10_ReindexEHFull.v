(** C10 — proofs: the last cell of the option matrix of its_to_gml: reindex=True together with explicit_hydrogen=True on an
    ITS WITH implicit hydrogens.  The relabelling map covers the old ids only (old id -> position from 1); the hydrogens
    h_to_explicit added keep their ids (max id + 1 ...), which lie above every new id as soon as the ids of the ITS are >= 1
    (atom maps are).  The rule then reads back as normalize_edge_orders (h_to_explicit c) renumbered by that map. *)
From Coq Require Import String List NArith ZArith Bool Lia.
From SK Require Import lib.LGraph lib.StrJoin model.C10_Model model.C10_Rxn proof.C10_Proof proof.C10_Views proof.C10_Build
  proof.C10_Copy proof.C10_GmlRead proof.C10_GmlWrite proof.C10_Relabel proof.C10_Reindex proof.C10_Hydrogen proof.C10_HRound
  proof.C10_GmlEH proof.C10_ReindexEH proof.C10_HRoundIts proof.C10_GmlEHFull.
Import ListNotations.
Local Open Scope Z_scope.

(** * the renumbering map: values in 1..n on the old ids, identity elsewhere *)
Lemma enum_from_bound l : forall k n j, assoc n (enum_from k l) = Some j -> (k <= j < k + N.of_nat (List.length l))%N.
Proof.
  induction l as [|x r IH]; intros k n j; [discriminate|]. simpl assoc. destruct (N.eqb n x).
  - intros [= <-]. simpl List.length. lia.
  - intros H. apply IH in H. simpl List.length. lia.
Qed.
Lemma mapget_enum_in l k n : In n l -> (k <= mapget (enum_from k l) n < k + N.of_nat (List.length l))%N.
Proof.
  intros Hn. destruct (enum_from_assoc l k n Hn) as (j & E & _). unfold mapget. rewrite E. apply (enum_from_bound l k n j E).
Qed.
Lemma enum_from_notin l : forall k n, ~ In n l -> assoc n (enum_from k l) = None.
Proof.
  induction l as [|x r IH]; intros k n Hn; [reflexivity|]. simpl. destruct (N.eqb_spec n x) as [->|]; [exfalso; apply Hn; left; reflexivity|].
  apply IH. intros H. apply Hn. right. exact H.
Qed.
Lemma mapget_enum_notin l k n : ~ In n l -> mapget (enum_from k l) n = n.
Proof. intros Hn. unfold mapget. rewrite (enum_from_notin l k n Hn). reflexivity. Qed.

(** distinct ids >= 1 : there are at most max of them *)
Lemma fold_max_le l : forall acc B, (acc <= B)%N -> (forall x, In x l -> (x <= B)%N) -> (fold_left N.max l acc <= B)%N.
Proof.
  induction l as [|x r IH]; intros acc B Ha H; [exact Ha|]. simpl. apply IH; [|intros y Hy; apply H; right; exact Hy].
  pose proof (H x (or_introl eq_refl)). lia.
Qed.
Lemma pigeon (l : list N) (M : N) : NoDup l -> (forall x, In x l -> (1 <= x <= M)%N) -> (N.of_nat (List.length l) <= M)%N.
Proof.
  intros Hnd H.
  assert (incl l (map N.of_nat (seq 1 (N.to_nat M)))) as Hincl.
  { intros x Hx. destruct (H x Hx) as [H1 H2]. apply in_map_iff. exists (N.to_nat x). split; [apply N2Nat.id|]. apply in_seq. lia. }
  pose proof (NoDup_incl_length Hnd Hincl) as L. rewrite map_length, seq_length in L. lia.
Qed.

(** * node order of relabel_nodes(copy=True) under an injective map *)
Section RelabelIds.
Variable f : N -> N.
Variable ids : list N.
Hypothesis ids_nd : NoDup ids.
Hypothesis finj : forall a b, In a ids -> In b ids -> f a = f b -> a = b.
Variable g : gr.
Hypothesis W : gwf g.
Hypothesis g_ids : node_ids g = ids.
Variable m : list (N * N).
Hypothesis Hm : forall n, mapget m n = f n.

Lemma relabel_node_ids : node_ids (nx_relabel m g) = map f ids.
Proof.
  rewrite (nx_relabel_fold f ids ids_nd finj g W g_ids m Hm). unfold node_ids at 1. rewrite fold_estep_node_ids.
  - fold (node_ids (rl_g2 f g)). unfold rl_g2.
    assert (forall (l : list (N * natt)) (G : gr), node_ids (fold_left (fun acc p => set_node acc (fst p) (fun _ => snd p)) l G) = node_ids G) as FS.
    { induction l as [|q r IH]; intros G; [reflexivity|]. simpl. rewrite IH. apply node_ids_set_node. }
    rewrite FS, fold_nstep_node_ids; [|apply (rl_keys f ids ids_nd finj g g_ids)|reflexivity].
    simpl. unfold rl_nodes. rewrite map_map. simpl. rewrite <- (map_map fst f). fold (node_ids g). rewrite g_ids. reflexivity.
  - intros e He. unfold rl_pairs in He. apply in_map_iff in He. destruct He as ([[a b] x] & <- & Hin). simpl.
    destruct (edges_iter_ends ids g W g_ids a b x Hin) as [Ha Hb]. unfold has_node.
    rewrite !(rl_g2_label f ids ids_nd finj g g_ids), !(rl_assoc f ids ids_nd finj g W g_ids).
    rewrite (finv_f f ids ids_nd finj a Ha), (finv_f f ids ids_nd finj b Hb).
    rewrite <- g_ids in Ha, Hb. apply has_node_in, has_node_label in Ha. apply has_node_in, has_node_label in Hb.
    destruct Ha as [x1 ->]. destruct Hb as [x2 ->]. auto.
Qed.
End RelabelIds.

Section RFull.
Variable c : gr.
Hypothesis Hok : IOK c.
Hypothesis Hpos : forall n, In n (node_ids c) -> (1 <= n)%N.
Variable K : gr.
Variable mx : N.
Variable P : list (N * N).
Hypothesis IE : EInv c K mx P.
Hypothesis LE : forall n a, label c n = Some a -> label K n = Some (upd a).
Hypothesis HP : P_ok c P.
Let ids := node_ids c.
Let m := enum_from 1%N ids.
Let f := mapget m.
Let Wc := iok_gwf c Hok.
Let WK := ei_wf _ _ _ _ IE.
Let idsK := node_ids K.
Let len := N.of_nat (List.length ids).

Lemma Kids : idsK = ids ++ map fst P.
Proof. apply (ei_ids _ _ _ _ IE). Qed.
Lemma len_le_max : (len <= max_id c)%N.
Proof.
  apply pigeon; [apply (gwf_nd c Wc)|]. intros x Hx. split; [apply Hpos, Hx|apply (bounded_max_id c), Hx].
Qed.
Lemma f_old n : In n ids -> (1 <= f n <= len)%N.
Proof. intros Hn. pose proof (mapget_enum_in ids 1%N n Hn). fold m in H. fold f in H. unfold len. lia. Qed.
Lemma h_above h : In h (map fst P) -> (max_id c < h)%N /\ ~ In h ids.
Proof.
  intros Hh. pose proof (ei_rng _ _ _ _ IE h Hh) as R. split; [lia|]. intros Hin. apply (bounded_max_id c) in Hin. lia.
Qed.
Lemma f_new h : In h (map fst P) -> f h = h.
Proof. intros Hh. apply mapget_enum_notin. apply (h_above h Hh). Qed.

Lemma fK_inj a b : In a idsK -> In b idsK -> f a = f b -> a = b.
Proof.
  rewrite Kids, !in_app_iff. pose proof len_le_max as LM. intros [Ha|Ha] [Hb|Hb] E.
  - apply (f_inj c Hok a b Ha Hb E).
  - exfalso. rewrite (f_new b Hb) in E. pose proof (f_old a Ha). pose proof (proj1 (h_above b Hb)). lia.
  - exfalso. rewrite (f_new a Ha) in E. pose proof (f_old b Hb). pose proof (proj1 (h_above a Ha)). lia.
  - rewrite (f_new a Ha), (f_new b Hb) in E. exact E.
Qed.
Let idsK_nd : NoDup idsK := gwf_nd K WK.
Let Hm : forall n, mapget m n = f n := fun n => eq_refl.
Let ids_nd : NoDup ids := gwf_nd c Wc.
Let f_inj_c : forall a b, In a ids -> In b ids -> f a = f b -> a = b := f_inj c Hok.

Definition K' : gr := nx_relabel m K.
Definition c' : gr := nx_relabel m c.
Definition P' : list (N * N) := map (fun hm : N * N => (fst hm, f (snd hm))) P.

Lemma K'_label k : label K' k = match finv f idsK k with Some n => label K n | None => None end.
Proof. apply (relabel_label f idsK idsK_nd fK_inj K WK eq_refl m Hm). Qed.
Lemma K'_adj k l : adj K' k l = match finv f idsK k, finv f idsK l with Some u, Some v => adj K u v | _, _ => None end.
Proof. apply (relabel_adj f idsK idsK_nd fK_inj K WK eq_refl m Hm). Qed.
Lemma c'_label k : label c' k = match finv f ids k with Some n => label c n | None => None end.
Proof. apply (relabel_label f ids ids_nd f_inj_c c Wc eq_refl m Hm). Qed.
Lemma c'_adj k l : adj c' k l = match finv f ids k, finv f ids l with Some u, Some v => adj c u v | _, _ => None end.
Proof. apply (relabel_adj f ids ids_nd f_inj_c c Wc eq_refl m Hm). Qed.
Lemma c'_ids : node_ids c' = map f ids.
Proof. apply (relabel_node_ids f ids ids_nd f_inj_c c Wc eq_refl m Hm). Qed.
Lemma K'_ids : node_ids K' = map f ids ++ map fst P.
Proof.
  unfold K'. rewrite (relabel_node_ids f idsK idsK_nd fK_inj K WK eq_refl m Hm), Kids, map_app. f_equal.
  rewrite <- (map_id (map fst P)) at 2. apply map_ext_in. intros h Hh. apply f_new, Hh.
Qed.
Lemma fst_P' : map fst P' = map fst P.
Proof. unfold P'. rewrite map_map. reflexivity. Qed.

(** the two inverses *)
Lemma finv_c_K k n : finv f ids k = Some n -> finv f idsK k = Some n.
Proof.
  intros H. apply finv_some in H. destruct H as [-> Hn]. apply (finv_f f idsK idsK_nd fK_inj). rewrite Kids. apply in_app_iff. left. exact Hn.
Qed.
Lemma finv_K_cases k n : finv f idsK k = Some n -> (In n ids /\ finv f ids k = Some n) \/ (In n (map fst P) /\ k = n /\ finv f ids k = None).
Proof.
  intros H. apply finv_some in H. destruct H as [-> Hn]. rewrite Kids in Hn. apply in_app_iff in Hn. destruct Hn as [Hn|Hn].
  - left. split; [exact Hn|apply (finv_f f ids ids_nd f_inj_c n Hn)].
  - right. split; [exact Hn|split; [apply f_new, Hn|]]. rewrite (f_new n Hn).
    destruct (finv f ids n) as [n0|] eqn:F; [|reflexivity]. exfalso. apply finv_some in F. destruct F as [E Hn0].
    pose proof (f_old n0 Hn0). pose proof (proj1 (h_above n Hn)). pose proof len_le_max. lia.
Qed.
Lemma finv_K_new h : In h (map fst P) -> finv f idsK h = Some h.
Proof.
  intros Hh. rewrite <- (f_new h Hh) at 1. apply (finv_f f idsK idsK_nd fK_inj). rewrite Kids. apply in_app_iff. right. exact Hh.
Qed.
Lemma finv_K_old n : In n ids -> finv f idsK (f n) = Some n.
Proof. intros Hn. apply (finv_f f idsK idsK_nd fK_inj). rewrite Kids. apply in_app_iff. left. exact Hn. Qed.

Lemma max_c' : (max_id c' <= len)%N.
Proof.
  unfold max_id. rewrite c'_ids. apply fold_max_le; [lia|]. intros x Hx. apply in_map_iff in Hx. destruct Hx as (n & <- & Hn). apply (f_old n Hn).
Qed.

Lemma padj_P' a b : In a idsK -> In b idsK -> padj P' (f a) (f b) = padj P a b.
Proof.
  intros Ha Hb. apply eq_true_iff_eq. unfold padj, P'. rewrite !existsb_exists. split.
  - intros ([h m'] & Hin & Pq). apply in_map_iff in Hin. destruct Hin as ([h0 m0] & E & Hin). simpl in E. injection E as <- <-. simpl in Pq.
    exists (h0, m0). split; [exact Hin|]. simpl.
    assert (In h0 idsK) as Hh by (rewrite Kids; apply in_app_iff; right; apply (in_map fst _ _ Hin)).
    assert (In m0 idsK) as Hm0 by (rewrite Kids; apply in_app_iff; left; apply (proj2 (proj2 HP h0 m0 Hin))).
    rewrite <- (f_new h0 (in_map fst _ _ Hin)) in Pq. apply pair_eqb_spec in Pq. apply pair_eqb_spec.
    destruct Pq as [[E1 E2]|[E1 E2]]; [left|right]; split; apply fK_inj; assumption.
  - intros ([h0 m0] & Hin & Pq). simpl in Pq. exists (h0, f m0). split.
    + apply in_map_iff. exists (h0, m0). auto.
    + simpl. rewrite <- (f_new h0 (in_map fst _ _ Hin)). apply pair_eqb_spec in Pq. apply pair_eqb_spec.
      destruct Pq as [[-> ->]|[-> ->]]; auto.
Qed.
Lemma padj_P'_image u v : padj P' u v = true -> finv f idsK u <> None /\ finv f idsK v <> None.
Proof.
  unfold padj, P'. rewrite existsb_exists. intros ([h m'] & Hin & Pq). apply in_map_iff in Hin. destruct Hin as ([h0 m0] & E & Hin).
  simpl in E. injection E as <- <-. simpl in Pq.
  pose proof (finv_K_new h0 (in_map fst _ _ Hin)) as F1. pose proof (finv_K_old m0 (proj2 (proj2 HP h0 m0 Hin))) as F2.
  apply pair_eqb_spec in Pq. destruct Pq as [[<- <-]|[<- <-]]; rewrite F1, F2; split; discriminate.
Qed.

Lemma IE' : EInv c' K' mx P'.
Proof.
  pose proof len_le_max as LM. pose proof max_c' as MC. split.
  - rewrite K'_ids, c'_ids, fst_P'. reflexivity.
  - intros h Hh. rewrite fst_P' in Hh. pose proof (ei_rng _ _ _ _ IE h Hh). lia.
  - rewrite fst_P'. exact (ei_nd _ _ _ _ IE).
  - pose proof (ei_mx _ _ _ _ IE). lia.
  - intros h m' Hin. unfold P' in Hin. apply in_map_iff in Hin. destruct Hin as ([h0 m0] & E & Hin). simpl in E. injection E as <- <-.
    destruct (ei_h _ _ _ _ IE h0 m0 Hin) as [L M]. split.
    + rewrite K'_label, (finv_K_new h0 (in_map fst _ _ Hin)). exact L.
    + rewrite c'_ids. apply in_map. exact M.
  - intros u v. rewrite K'_adj, c'_adj.
    destruct (finv f idsK u) as [a|] eqn:Fu.
    + destruct (finv f idsK v) as [b|] eqn:Fv.
      * pose proof (finv_some f idsK u a Fu) as [Eu Ha]. pose proof (finv_some f idsK v b Fv) as [Ev Hb]. subst u v.
        rewrite (padj_P' a b Ha Hb), (ei_adj _ _ _ _ IE). destruct (padj P a b) eqn:Pa; [reflexivity|].
        destruct (finv_K_cases _ _ Fu) as [[Ha1 ->]|(Ha1 & _ & ->)].
        -- destruct (finv_K_cases _ _ Fv) as [[Hb1 ->]|(Hb1 & _ & ->)]; [reflexivity|].
           apply (adj_g_notin c Wc). right. apply (h_above b Hb1).
        -- apply (adj_g_notin c Wc). left. apply (h_above a Ha1).
      * destruct (padj P' u v) eqn:Pa; [destruct (padj_P'_image u v Pa) as [_ H]; congruence|].
        destruct (finv f ids v) as [b|] eqn:F; [rewrite (finv_c_K v b F) in Fv; discriminate|]. destruct (finv f ids u); reflexivity.
    + destruct (padj P' u v) eqn:Pa; [destruct (padj_P'_image u v Pa) as [H _]; congruence|].
      destruct (finv f ids u) as [a|] eqn:F; [rewrite (finv_c_K u a F) in Fu; discriminate|]. reflexivity.
  - apply (relabel_gwf f idsK idsK_nd fK_inj K WK eq_refl m Hm).
Qed.

Lemma LE' k a' : label c' k = Some a' -> label K' k = Some (upd a').
Proof.
  rewrite c'_label, K'_label. destruct (finv f ids k) as [n|] eqn:F; [|discriminate]. rewrite (finv_c_K k n F). apply LE.
Qed.
Lemma HP' : P_ok c' P'.
Proof.
  pose proof len_le_max as LM. split; [rewrite fst_P'; exact (proj1 HP)|]. intros h m' Hin. unfold P' in Hin. apply in_map_iff in Hin.
  destruct Hin as ([h0 m0] & E & Hin). simpl in E. injection E as <- <-. rewrite c'_ids. split.
  - intros H. apply in_map_iff in H. destruct H as (n & E1 & Hn). pose proof (f_old n Hn). pose proof (proj1 (h_above h0 (in_map fst _ _ Hin))). lia.
  - apply in_map. apply (proj2 (proj2 HP h0 m0 Hin)).
Qed.
End RFull.

Theorem gml_roundtrip_reindex_eh_full_iok c : IOK c -> (forall n, In n (node_ids c) -> (1 <= n)%N) ->
  let E := normalize_edge_orders (h_to_explicit c None false) in
  let f := mapget (enum_from 1%N (node_ids c)) in
  let I' := gml_to_its (its_to_gml c false true true) in
  (forall a b, In a (node_ids E) -> In b (node_ids E) -> f a = f b -> a = b) /\
  (forall k, has_node I' k = true <-> exists n, In n (node_ids E) /\ k = f n) /\
  (forall n a, label E n = Some a ->
     label I' (f n) = Some (gml_node (f n) (tg_el (tG_of a)) (tg_ch (tG_of a)) (tg_ch (tH_of a)))) /\
  (forall u v, In u (node_ids E) -> In v (node_ids E) -> adj I' (f u) (f v) = adj E u v).
Proof.
  intros Hok Hpos. pose proof (iok_gwf c Hok) as W.
  destruct (hexp_run_all c W) as (mx & P & IE & HP & LE1). set (K := h_to_explicit c None false) in *.
  intros E f I'.
  pose proof (ei_wf _ _ _ _ IE) as WK. pose proof (gwf_nd K WK) as Knd.
  pose proof (fK_inj c Hok Hpos K _ P IE) as FI.
  pose proof (gml_pipeline_full (c' c) (RL_IOK c Hok) _ _ (RL_side c Hok false) (RL_side c Hok true)
                (K' c K) _ (P' c P) (IE' c Hok Hpos K _ P IE HP) (LE' c Hok Hpos K _ P IE LE1) (HP' c Hok Hpos K _ P IE HP)) as (Q1 & Q2 & Q3).
  cbv zeta in Q1, Q2, Q3.
  assert (I' = snd (gml_to_nx [(SLeft, side_entries (RL c (side_graph c false)) (find_changed (RL c (side_graph c false)) (RL c (side_graph c true))));
                               (SContext, context_entries (K' c K) (find_changed (RL c (side_graph c false)) (RL c (side_graph c true))) true);
                               (SRight, side_entries (RL c (side_graph c true)) (find_changed (RL c (side_graph c false)) (RL c (side_graph c true))))])) as EI.
  { unfold I', gml_to_its. rewrite its_to_gml_rec_reindex_eh by exact Hok. reflexivity. }
  rewrite <- EI in Q1, Q2, Q3.
  destruct (relabel_lookups f (node_ids K) Knd FI K WK eq_refl (enum_from 1%N (node_ids c)) (fun n => eq_refl)) as (L1 & L2 & L3 & _).
  change (nx_relabel (enum_from 1%N (node_ids c)) K) with (K' c K) in L1, L2, L3. change (node_ids E) with (node_ids K).
  split; [exact FI|split; [|split]].
  - intros k. rewrite Q1. apply L1.
  - intros n a La. apply Q2. change (label (K' c K) (f n) = Some a). rewrite L2; [exact La|]. apply has_node_in, has_node_label. eauto.
  - intros u v Hu Hv. rewrite Q3. change (adj E u v) with (adj (emap norm_edge K) u v).
    change (normalize_edge_orders (K' c K)) with (emap norm_edge (K' c K)). rewrite !adj_emap, L3 by assumption. reflexivity.
Qed.

Theorem gml_roundtrip_reindex_eh_full c : its_ok c = true -> forallb (fun n => (1 <=? n)%N) (node_ids c) = true ->
  let E := normalize_edge_orders (h_to_explicit c None false) in
  let f := mapget (enum_from 1%N (node_ids c)) in
  let I' := gml_to_its (its_to_gml c false true true) in
  (forall a b, In a (node_ids E) -> In b (node_ids E) -> f a = f b -> a = b) /\
  (forall k, has_node I' k = true <-> exists n, In n (node_ids E) /\ k = f n) /\
  (forall n a, label E n = Some a ->
     label I' (f n) = Some (gml_node (f n) (tg_el (tG_of a)) (tg_ch (tG_of a)) (tg_ch (tH_of a)))) /\
  (forall u v, In u (node_ids E) -> In v (node_ids E) -> adj I' (f u) (f v) = adj E u v).
Proof.
  intros H Hp. apply gml_roundtrip_reindex_eh_full_iok; [apply its_ok_IOK, H|].
  intros n Hn. rewrite forallb_forall in Hp. apply N.leb_le, Hp, Hn.
Qed.

(** non-vacuity: the full ITS of proof/C10_GmlEHFull.v with ids 10, 20: atoms become 1, 2, the four hydrogens keep 21..24;
    and what goes wrong with a node id 0 (outside the domain): the hydrogen id collides with a new id *)
Definition ex_full_h2 : gr :=
  LG [(10%N, ex_nd_h "C" 3 0 0); (20%N, ex_nd_h "O" 1 0 (-1))] [(10%N, 20%N, EA (Some (OP 2 4)) (Some (-2)))].
Example gml_roundtrip_reindex_eh_full_ex :
  its_ok ex_full_h2 = true /\ forallb (fun n => (1 <=? n)%N) (node_ids ex_full_h2) = true /\
  map fst (gnodes (gml_to_its (its_to_gml ex_full_h2 false true true))) = [1; 2; 21; 22; 23; 24]%N /\
  adj (gml_to_its (its_to_gml ex_full_h2 false true true)) 1%N 21%N = Some (EA (Some (OP 2 2)) (Some 0)) /\
  adj (gml_to_its (its_to_gml ex_full_h2 false true true)) 2%N 24%N = Some (EA (Some (OP 2 2)) (Some 0)).
Proof. vm_compute. repeat split. Qed.
Definition ex_full_h0 : gr :=
  LG [(0%N, ex_nd_h "C" 1 0 0); (1%N, ex_nd_h "O" 0 0 (-1))] [(0%N, 1%N, EA (Some (OP 2 4)) (Some (-2)))].
Example reindex_eh_id0_collides :
  its_ok ex_full_h0 = true /\ List.length (gnodes (gml_to_its (its_to_gml ex_full_h0 false true true))) = 2%nat /\
  List.length (gnodes (gml_to_its (its_to_gml ex_full_h0 false false true))) = 3%nat.
Proof. vm_compute. repeat split. Qed.

(** the hypothesis "ids >= 1" cannot be dropped: with 0-based ids the first new hydrogen id (max id + 1 = n) is also the new id
    of the last atom, relabel_nodes merges the two and the rule read back has fewer atoms than the ITS with explicit hydrogens
    (replayed on the implementation: corpus/regress/C10/reindex_eh_id0.json) *)
Theorem reindex_eh_needs_positive_ids :
  exists c : gr, its_ok c = true /\ forallb (fun n => (1 <=? n)%N) (node_ids c) = false /\
    List.length (gnodes (normalize_edge_orders (h_to_explicit c None false))) = 3%nat /\
    List.length (gnodes (gml_to_its (its_to_gml c false false true))) = 3%nat /\
    List.length (gnodes (gml_to_its (its_to_gml c false true true))) = 2%nat.
Proof. exists ex_full_h0. vm_compute. repeat split. Qed.
