(** C11 (round 5) — clause 1 for disconnected graphs, semantically: the reported number (product of the per-component
    numbers) is the number of label-preserving automorphisms of the WHOLE graph that map every component onto itself -
    "component swaps deliberately excluded".  Proof: the listed automorphisms that keep the components correspond one to one
    to the tuples of component automorphisms (restriction / combination by cases).  Stdlib lists. *)
From Coq Require Import List NArith Arith Lia Permutation.
From SK Require Import lib.LGraph lib.Mono model.C11_Model proof.C11_Aut proof.C11_Dedup proof.C11_Main proof.C11_Comp
     proof.C11_Extend.
Import ListNotations.

(** ---------- tuples: the product of a list of lists ---------- *)
Fixpoint prodl {B} (Ps : list (list B)) : list (list B) :=
  match Ps with
  | [] => [[]]
  | P :: r => flat_map (fun b => map (cons b) (prodl r)) P
  end.

Lemma in_prodl {B} (Ps : list (list B)) : forall t, In t (prodl Ps) <-> Forall2 (fun b P => In b P) t Ps.
Proof.
  induction Ps as [|P r IH]; intros t; simpl.
  - split; [intros [<-|[]]; constructor | intros H; inversion H; left; reflexivity].
  - rewrite in_flat_map. split.
    + intros (b & Hb & Ht). apply in_map_iff in Ht. destruct Ht as (t' & <- & Ht'). constructor; [exact Hb | apply IH; exact Ht'].
    + intros H. inversion H as [|b P' t' r' Hb Ht']; subst. exists b. split; [exact Hb|].
      apply in_map_iff. exists t'. split; [reflexivity | apply IH; exact Ht'].
Qed.

Lemma length_prodl {B} (Ps : list (list B)) : length (prodl Ps) = fold_right Nat.mul 1%nat (map (@length B) Ps).
Proof.
  induction Ps as [|P r IH]; simpl; [reflexivity|]. rewrite <- IH. generalize (prodl r). intros Q.
  induction P as [|b P' IHP]; simpl; [reflexivity|]. rewrite app_length, map_length, IHP. reflexivity.
Qed.

Lemma nodup_prodl {B} (Ps : list (list B)) : (forall P, In P Ps -> NoDup P) -> NoDup (prodl Ps).
Proof.
  induction Ps as [|P r IH]; simpl; intros H; [repeat constructor; intros []|].
  apply NoDup_flat_map.
  - apply H. left. reflexivity.
  - intros b _. apply FinFun.Injective_map_NoDup; [intros x y E; inversion E; reflexivity|].
    apply IH. intros Q HQ. apply H. right. exact HQ.
  - intros b b' t _ _ H1 H2. apply in_map_iff in H1. apply in_map_iff in H2.
    destruct H1 as (t1 & <- & _). destruct H2 as (t2 & E & _). inversion E. reflexivity.
Qed.

(** counting through a bijection onto the tuples *)
Lemma count_by_tuples {A B} (L : list A) (Ps : list (list B)) (F : A -> list B) :
  NoDup L -> (forall P, In P Ps -> NoDup P) ->
  (forall a, In a L -> In (F a) (prodl Ps)) ->
  (forall a a', In a L -> In a' L -> F a = F a' -> a = a') ->
  (forall t, In t (prodl Ps) -> exists a, In a L /\ F a = t) ->
  length L = fold_right Nat.mul 1%nat (map (@length B) Ps).
Proof.
  intros HL HPs Hin Hinj Hsur. rewrite <- length_prodl, <- (map_length F L).
  apply Permutation_length. apply NoDup_Permutation.
  - apply (inj_in_NoDup_map F L HL). exact Hinj.
  - apply nodup_prodl. exact HPs.
  - intros t. rewrite in_map_iff. split.
    + intros (a & <- & Ha). apply Hin. exact Ha.
    + intros Ht. destruct (Hsur t Ht) as (a & Ha & <-). exists a. split; [reflexivity | exact Ha].
Qed.

(** ---------- automorphisms as functions: only the values on the nodes matter ---------- *)
Lemma is_automorphism_ext fn fe (g : graph) s s' :
  (forall u, In u (node_ids g) -> s u = s' u) -> is_automorphism fn fe g s -> is_automorphism fn fe g s'.
Proof.
  intros E (S1 & S2 & S3 & S4). split; [|split; [|split]].
  - intros u Hu. rewrite <- (E u Hu). apply S1. exact Hu.
  - intros u v Hu Hv. rewrite <- (E u Hu), <- (E v Hv). apply S2; assumption.
  - intros u Hu. rewrite <- (E u Hu). apply S3. exact Hu.
  - intros u v Hu Hv. rewrite <- (E u Hu), <- (E v Hv). apply S4; assumption.
Qed.

Lemma aut_pairs_ext (g : graph) s s' : (forall u, In u (node_ids g) -> s u = s' u) -> aut_pairs g s = aut_pairs g s'.
Proof. intros E. unfold aut_pairs. f_equal. apply map_ext_in. intros u Hu. rewrite (E u Hu). reflexivity. Qed.

Lemma aut_pairs_inj (g : graph) s s' : aut_pairs g s = aut_pairs g s' -> forall u, In u (node_ids g) -> s u = s' u.
Proof.
  unfold aut_pairs. intros E u Hu. apply (f_equal (@rev _)) in E. rewrite !rev_involutive in E.
  induction (node_ids g) as [|a r IH]; [destruct Hu|]. simpl in E. inversion E as [[E1 E2]].
  destruct Hu as [<-|Hu]; [exact E1 | exact (IH E2 Hu)].
Qed.

Lemma Forall2_impl_in {X Y} (P Q : X -> Y -> Prop) (t : list X) (cs : list Y) :
  Forall2 P t cs -> (forall m c, In c cs -> P m c -> Q m c) -> Forall2 Q t cs.
Proof.
  induction 1 as [|m c t' cs' H H' IH]; intros HQ; constructor.
  - apply HQ; [left; reflexivity | exact H].
  - apply IH. intros m' c' Hc'. apply HQ. right. exact Hc'.
Qed.

Lemma Forall2_and {X Y} (P Q : X -> Y -> Prop) (t : list X) (cs : list Y) :
  Forall2 P t cs -> Forall2 Q t cs -> Forall2 (fun m c => P m c /\ Q m c) t cs.
Proof.
  induction 1 as [|m c t' cs' H H' IH]; intros HQ; inversion HQ; subst; constructor; [split; assumption | apply IH; assumption].
Qed.

Lemma Forall2_map_eq {X Y} (R : X -> Y -> Prop) (f : Y -> X) (t : list X) (cs : list Y) :
  Forall2 R t cs -> (forall m c, In c cs -> R m c -> f c = m) -> map f cs = t.
Proof.
  induction 1 as [|m c t' cs' H H' IH]; intros Hf; simpl; [reflexivity|]. f_equal.
  - apply Hf; [left; reflexivity | exact H].
  - apply IH. intros m' c' Hc'. apply Hf. right. exact Hc'.
Qed.

Lemma Forall2_maps {X Y Z} (f : Z -> X) (h : Z -> Y) (R : X -> Y -> Prop) (l : list Z) :
  (forall z, In z l -> R (f z) (h z)) -> Forall2 R (map f l) (map h l).
Proof.
  induction l as [|z r IH]; simpl; intros H; constructor; [apply H; left; reflexivity | apply IH; intros z' Hz'; apply H; right; exact Hz'].
Qed.

Lemma fold_left_mul_nat (l : list nat) : forall a,
  fold_left N.mul (map N.of_nat l) a = (a * N.of_nat (fold_right Nat.mul 1%nat l))%N.
Proof.
  induction l as [|x r IH]; intros a; simpl; [lia|]. rewrite IH. lia.
Qed.

(** ---------- combination of component automorphisms by cases ---------- *)
Fixpoint combine_auts (cs : list (list N)) (t : list mapping) (u : N) : N :=
  match cs, t with
  | c :: cs', m :: t' => if LGraph.mem u c then app_map m u else combine_auts cs' t' u
  | _, _ => u
  end.

Definition keepsb (g : graph) (m : mapping) : bool :=
  forallb (fun c => forallb (fun x => LGraph.mem (app_map m x) c) c) (components g).

Lemma keepsb_spec (g : graph) m : keepsb g m = true <-> keeps_components g (app_map m).
Proof.
  unfold keepsb, keeps_components. rewrite forallb_forall. split.
  - intros H c x Hc Hx. specialize (H c Hc). rewrite forallb_forall in H. apply LGraph.mem_spec. exact (H x Hx).
  - intros H c Hc. apply forallb_forall. intros x Hx. apply LGraph.mem_spec. exact (H c x Hc Hx).
Qed.

Lemma listed_fun fn fe (g : graph) m : simple_graph g -> In m (auts fn fe g) ->
  is_automorphism fn fe g (app_map m) /\ m = aut_pairs g (app_map m).
Proof.
  intros Hs Hm. apply (auts_listing fn fe g Hs) in Hm. destruct Hm as (s & Hsa & ->).
  assert (E : forall u, In u (node_ids g) -> s u = app_map (aut_pairs g s) u).
  { intros u Hu. symmetry. apply app_map_aut_pairs; [exact (proj1 Hs) | exact Hu]. }
  split; [exact (is_automorphism_ext fn fe g s _ E Hsa) | exact (aut_pairs_ext g s _ E)].
Qed.

Section Count.
Variable fn : nlab -> N.
Variable fe : elab -> N.
Variable g : graph.
Hypothesis Hwf : wf g.

Let Hs : simple_graph g := wf_simple g Hwf.

Lemma combine_spec cs : forall t,
  (forall c, In c cs -> In c (components g)) -> pairwise_disjoint cs ->
  Forall2 (fun m c => In m (auts fn fe (induced_sub g c))) t cs ->
  is_automorphism fn fe g (combine_auts cs t) /\ keeps_components g (combine_auts cs t) /\
  (forall u, (forall c, In c cs -> ~ In u c) -> combine_auts cs t u = u) /\
  Forall2 (fun m c => forall u, In u c -> combine_auts cs t u = app_map m u) t cs.
Proof.
  induction cs as [|c cs IH]; intros t Hsub Hdisj Ht.
  - inversion Ht; subst. refine (conj _ (conj _ (conj _ _))).
    + exact (proj1 (aut_group fn fe g Hs)).
    + intros c x _ Hx. exact Hx.
    + intros u _. reflexivity.
    + constructor.
  - inversion Ht as [|m c' t' cs' Hm Ht']; subst. simpl in Hdisj. destruct Hdisj as [Hd Hdisj'].
    assert (Hcin : In c (components g)) by (apply Hsub; left; reflexivity).
    destruct (IH t' (fun c0 H0 => Hsub c0 (or_intror H0)) Hdisj' Ht') as (R1 & R2 & R3 & R4).
    set (rest := combine_auts cs t') in *.
    destruct (listed_fun fn fe _ m (induced_simple g c Hs) Hm) as (Hs1 & _).
    set (E := extend_by_id c (app_map m)).
    assert (HE1 : is_automorphism fn fe g E) by exact (component_aut_extends fn fe g Hwf c Hcin _ Hs1).
    assert (HE2 : keeps_components g E) by exact (extension_keeps_components fn fe g Hwf c Hcin _ Hs1).
    assert (Hrest_c : forall u, In u c -> rest u = u).
    { intros u Hu. apply R3. intros c0 Hc0 Hu0. exact (Hd c0 Hc0 u Hu Hu0). }
    assert (Hnotc : forall u, ~ In u c -> ~ In (rest u) c).
    { intros u Hu Hru. destruct (existsb (fun c0 => LGraph.mem u c0) cs) eqn:Ex.
      - apply existsb_exists in Ex. destruct Ex as (c0 & Hc0 & Mu). apply LGraph.mem_spec in Mu.
        pose proof (R2 c0 u (Hsub c0 (or_intror Hc0)) Mu) as Hr0. exact (Hd c0 Hc0 (rest u) Hru Hr0).
      - assert (Hid : rest u = u); [|rewrite Hid in Hru; contradiction].
        apply R3. intros c0 Hc0 Hu0. assert (existsb (fun c1 => LGraph.mem u c1) cs = true); [|congruence].
        apply existsb_exists. exists c0. split; [exact Hc0 | apply LGraph.mem_spec; exact Hu0]. }
    assert (Heq : forall u, (if LGraph.mem u c then app_map m u else rest u) = E (rest u)).
    { intros u. unfold E, extend_by_id. destruct (mem_reflect u c) as [Mu|Mu].
      - rewrite (Hrest_c u Mu). destruct (mem_reflect u c); [reflexivity | contradiction].
      - destruct (mem_reflect (rest u) c) as [Mr|_]; [|reflexivity]. exfalso. exact (Hnotc u Mu Mr). }
    refine (conj _ (conj _ (conj _ _))).
    + apply (is_automorphism_ext fn fe g (fun u => E (rest u))); [intros u _; symmetry; apply Heq|].
      apply (proj1 (proj2 (aut_group fn fe g Hs))); assumption.
    + intros c0 x Hc0 Hx. cbn [combine_auts]. fold rest. rewrite Heq. apply HE2; [exact Hc0|]. apply R2; assumption.
    + intros u Hu. cbn [combine_auts]. fold rest.
      destruct (mem_reflect u c) as [M|_]; [exfalso; exact (Hu c (or_introl eq_refl) M)|].
      apply R3. intros c0 Hc0. apply Hu. right. exact Hc0.
    + constructor.
      * intros u Hu. cbn [combine_auts]. destruct (mem_reflect u c); [reflexivity | contradiction].
      * apply (Forall2_impl_in _ _ _ _ R4). intros m0 c0 Hc0 H0 u Hu. cbn [combine_auts]. fold rest.
        destruct (mem_reflect u c) as [M|_]; [exfalso; exact (Hd c0 Hc0 u M Hu) | exact (H0 u Hu)].
Qed.

Definition kept_auts : list mapping := filter (keepsb g) (auts fn fe g).
Definition restrictions (m : mapping) : list mapping :=
  map (fun c => aut_pairs (induced_sub g c) (app_map m)) (components g).
Definition comp_auts : list (list mapping) := map (fun c => auts fn fe (induced_sub g c)) (components g).

Lemma kept_spec m : In m kept_auts <->
  exists s, is_automorphism fn fe g s /\ keeps_components g s /\ m = aut_pairs g s.
Proof.
  unfold kept_auts. rewrite filter_In, keepsb_spec. split.
  - intros (Hm & Hk). destruct (listed_fun fn fe g m Hs Hm) as (Ha & E). exists (app_map m). auto.
  - intros (s & Ha & Hk & ->). split; [apply (auts_listing fn fe g Hs); exists s; auto|].
    intros c x Hc Hx. rewrite app_map_aut_pairs; [apply Hk; assumption | exact (proj1 Hs) | exact (comp_nodes g Hwf c Hc x Hx)].
Qed.

Lemma kept_count : length kept_auts = fold_right Nat.mul 1%nat (map (@length mapping) comp_auts).
Proof.
  destruct (components_spec g Hwf) as (_ & Hdisj & Hcover).
  apply (count_by_tuples kept_auts comp_auts restrictions).
  - apply NoDup_filter. apply (auts_nodup fn fe g Hs).
  - intros P HP. unfold comp_auts in HP. apply in_map_iff in HP. destruct HP as (c & <- & _).
    apply auts_nodup. apply induced_simple. exact Hs.
  - intros m Hm. apply in_prodl. unfold restrictions, comp_auts. apply Forall2_maps. intros c Hc.
    unfold kept_auts in Hm. apply filter_In in Hm. destruct Hm as (Hm & Hk). apply keepsb_spec in Hk.
    destruct (listed_fun fn fe g m Hs Hm) as (Ha & _).
    apply (auts_listing fn fe (induced_sub g c) (induced_simple g c Hs)). exists (app_map m).
    split; [exact (restriction_is_aut fn fe g c Hc _ Ha Hk) | reflexivity].
  - intros m m' Hm Hm' E. unfold kept_auts in Hm, Hm'. apply filter_In in Hm. apply filter_In in Hm'.
    destruct (listed_fun fn fe g m Hs (proj1 Hm)) as (_ & E1). destruct (listed_fun fn fe g m' Hs (proj1 Hm')) as (_ & E2).
    rewrite E1, E2. apply aut_pairs_ext. intros u Hu.
    destruct (Hcover u Hu) as (c & Hc & Huc).
    apply (aut_pairs_inj _ _ _ (ext_in_map E c Hc) u). apply induced_node; assumption.
  - intros t Ht. apply in_prodl in Ht. unfold comp_auts in Ht.
    assert (Ht' : Forall2 (fun m c => In m (auts fn fe (induced_sub g c))) t (components g)).
    { clear -Ht. remember (components g) as cs eqn:Ecs. clear Ecs. revert t Ht.
      induction cs as [|c r IH]; intros t Ht; simpl in Ht; inversion Ht; subst; constructor; [assumption | apply IH; assumption]. }
    destruct (combine_spec (components g) t (fun c H => H) Hdisj Ht') as (C1 & C2 & _ & C4).
    set (comb := combine_auts (components g) t) in *.
    exists (aut_pairs g comb). split.
    + apply kept_spec. exists comb. auto.
    + unfold restrictions. apply (Forall2_map_eq _ _ _ _ (Forall2_and _ _ _ _ Ht' C4)).
      intros m c Hc (Hm & Hagree). destruct (listed_fun fn fe _ m (induced_simple g c Hs) Hm) as (_ & Em). rewrite Em.
      apply aut_pairs_ext. intros u Hu. destruct (induced_nodes_in g c u Hu) as [Hun Huc].
      rewrite app_map_aut_pairs; [apply Hagree; exact Huc | exact (proj1 Hs) | exact Hun].
Qed.

Theorem count_no_swaps :
  a_count (analyze fn fe g) = N.of_nat (length kept_auts) /\
  (forall m, In m kept_auts <-> exists s, is_automorphism fn fe g s /\ keeps_components g s /\ m = aut_pairs g s).
Proof.
  split; [|exact kept_spec].
  rewrite (analyze_count fn fe g Hs).
  destruct (length (components g) <=? 1)%nat eqn:E.
  - (* at most one component: every listed automorphism keeps it *)
    f_equal. unfold kept_auts. symmetry. f_equal. apply filter_all. intros m Hm. apply keepsb_spec.
    apply Nat.leb_le in E. exact (one_component_kept fn fe g _ Hwf E (proj1 (listed_fun fn fe g m Hs Hm))).
  - rewrite kept_count. unfold comp_auts. rewrite map_map.
    rewrite <- (map_map (fun c => length (auts fn fe (induced_sub g c))) N.of_nat).
    rewrite fold_left_mul_nat. lia.
Qed.
End Count.

(** non-vacuity: two edges C-C . C-C: 8 automorphisms of the whole graph, 4 of them keep the components = the reported 4 *)
Example ex_count :
  length (auts n_exact e_order ex_2e) = 8%nat /\ length (kept_auts n_exact e_order ex_2e) = 4%nat /\
  a_count (analyze n_exact e_order ex_2e) = 4%N /\
  keepsb ex_2e [(4, 3); (3, 4); (2, 1); (1, 2)]%N = true /\ keepsb ex_2e [(4, 2); (3, 1); (2, 4); (1, 3)]%N = false.
Proof. vm_compute. repeat split. Qed.
