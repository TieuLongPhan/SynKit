(** C09 — API-level statements composed from the pieces *)
From Coq Require Import List NArith ZArith Bool.
From SK Require Import lib.StrJoin lib.LGraph model.C01_Model model.C02_Model model.C09_Model model.C09_Strings
  proof.C09_Valid proof.C09_Main proof.C09_Expand.
From SK Require model.C01_Opts.
Import ListNotations.

(** AAMValidator.smiles_check with its options is exact: on two readable strings it answers True exactly when the graphs the
    method string selects (reaction centres for "RC" in any capitalisation, full ITS graphs for every other string), built
    with the given ignore_aromaticity, are isomorphic on typesGH and bond-order pairs *)
Theorem smiles_check_exact (m : str) (ia : bool) (G1 H1 G2 H2 : mgraph) : wf G2 -> wf H2 ->
  (smiles_check_full m ia (Some (G1, H1)) (Some (G2, H2)) = true <->
   if is_rc m
   then its_isomorphic (get_rc (C01_Opts.its_construct_o (vopts ia) G1 H1)) (get_rc (C01_Opts.its_construct_o (vopts ia) G2 H2))
   else its_isomorphic (C01_Opts.its_construct_o (vopts ia) G1 H1) (C01_Opts.its_construct_o (vopts ia) G2 H2)).
Proof.
  intros W1 W2. rewrite (proj1 (smiles_check_full_spec m ia G1 H1 G2 H2)).
  destruct (validator_exact_o ia G1 H1 G2 H2 W1 W2) as (A & B). destruct (is_rc m); assumption.
Qed.

(** non-vacuity: see C09_Main.ex_validator / C09_Expand.ex_is_rc; here: the default call on the toy reaction against itself *)
Example ex_smiles_check_exact : smiles_check_full [82; 67]%N false (Some (ex_G, ex_H)) (Some (ex_G, ex_H)) = true /\
                                smiles_check_full [105; 116; 115]%N true (Some (ex_G, ex_H)) (Some (ex_G, ex_H3)) = false.
Proof. vm_compute. split; reflexivity. Qed.
