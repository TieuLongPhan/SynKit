(** C08 — canonical_form(max_depth = md) of the exact back-end ([nsearch_md], [canon_md]):
    exact      with md >= number of nodes the depth guard never fires: the search IS the unbounded search, early_stop = False;
    complete   whatever md: when early_stop is reported False the search was the unbounded one (the flag is sticky);
    faithful   whatever md: when a permutation is returned (no RuntimeError) it is a leaf of the search tree, hence a
               permutation of the node set - the returned graph is the input relabelled onto 1..N (not necessarily the
               canonical one: the search was abandoned). *)
From Coq Require Import List NArith ZArith Bool Arith Lia Permutation.
From SK Require Import lib.LGraph lib.IRSortKeys lib.IRCore lib.IRSearch lib.StrJoin.
From SK Require Import model.C08_Model proof.C08_Spec proof.C08_Sort proof.C08_IR proof.C08_Faithful proof.C08_Cov proof.C08_Nauty.
From SK Require lib.IRInst.
Import ListNotations.

(* ---------------- deep enough: the guard never fires ---------------- *)
Lemma fold_md_noflag (g : graph) (F : nacc -> N -> nacc) (G : nacc -> N -> nacc * bool) l :
  (forall a v, In v l -> G a v = (F a v, false)) ->
  forall a, fold_left (fun (s : nacc * bool) v => if snd s then s else G (fst s) v) l (a, false) = (fold_left F l a, false).
Proof.
  induction l as [|v l IH]; intros H a; [reflexivity|]. cbn [fold_left snd fst].
  rewrite (H a v) by (left; reflexivity). apply IH. intros a' v' I. apply H. right. exact I.
Qed.

Theorem nsearch_md_deep md g fuel : forall P pre a, length pre + fuel <= S md ->
  nsearch_md md g fuel P pre a = (nsearch g fuel P pre a, false).
Proof.
  induction fuel as [|f IH]; intros P pre a Hd; [reflexivity|].
  cbn [nsearch_md nsearch].
  assert (Hlt : Nat.ltb md (length pre) = false) by (apply Nat.ltb_ge; lia). rewrite Hlt.
  destruct (first_big (nrefine g P)) as [i|]; [|reflexivity].
  set (l := children g (nth i (nrefine g P) [])).
  rewrite <- (fold_md_noflag g (fun a v => if npruned g a (pre ++ [v]) then a else nsearch g f (individualise (nrefine g P) i v) (pre ++ [v]) a)
                (fun a v => if npruned g a (pre ++ [v]) then (a, false) else nsearch_md md g f (individualise (nrefine g P) i v) (pre ++ [v]) a) l).
  - apply fold_left_ext_in. intros [a' b'] v _. cbn [snd fst]. destruct b'; [reflexivity|].
    destruct (npruned g a' (pre ++ [v])); reflexivity.
  - intros a' v _. destruct (npruned g a' (pre ++ [v])); [reflexivity|].
    apply IH. rewrite app_length. simpl. lia.
Qed.

(* ---------------- no early stop reported: the search was the unbounded one ---------------- *)
Lemma fold_md_sticky (F : nacc * bool -> N -> nacc * bool) l : (forall s v, snd s = true -> F s v = s) ->
  forall s : nacc * bool, snd s = true -> fold_left F l s = s.
Proof. intros HF. induction l as [|v l IH]; intros s Hs; [reflexivity|]. cbn [fold_left]. rewrite (HF s v Hs). apply IH. exact Hs. Qed.

Theorem nsearch_md_complete md g fuel : forall P pre a,
  snd (nsearch_md md g fuel P pre a) = false -> fst (nsearch_md md g fuel P pre a) = nsearch g fuel P pre a.
Proof.
  induction fuel as [|f IH]; intros P pre a; [reflexivity|].
  cbn [nsearch_md nsearch]. destruct (Nat.ltb md (length pre)); [discriminate|].
  destruct (first_big (nrefine g P)) as [i|]; [|reflexivity].
  set (l := children g (nth i (nrefine g P) [])). clearbody l. revert a.
  induction l as [|v l IHl]; intros a Hf; [reflexivity|].
  cbn [fold_left snd fst] in *.
  destruct (npruned g a (pre ++ [v])); [apply IHl; exact Hf|].
  destruct (nsearch_md md g f (individualise (nrefine g P) i v) (pre ++ [v]) a) as [a1 b1] eqn:E1.
  destruct b1.
  - rewrite fold_md_sticky in Hf; [discriminate| |reflexivity]. intros s0 v0 Hs0. rewrite Hs0. reflexivity.
  - pose proof (IH (individualise (nrefine g P) i v) (pre ++ [v]) a) as H. rewrite E1 in H. cbn [fst snd] in H.
    rewrite <- (H eq_refl). apply IHl. exact Hf.
Qed.

Theorem canon_md_complete md g : NoDup (node_ids g) -> snd (nauty_md md g) = false ->
  canon_md md g = Some (nauty_perm g, false).
Proof.
  intros Hnd Hf. unfold canon_md. rewrite Hf. unfold nauty_md in *. rewrite (nsearch_md_complete _ _ _ _ _ _ Hf).
  destruct (nauty_perm_leaf g Hnd) as [_ Hl]. unfold nauty_label, nauty_perm, nauty_acc in *.
  destruct (fst (nsearch g (sfuel g) (init_partition g) [] (None, []))) as [[bl bp]|]; [reflexivity|discriminate].
Qed.

Theorem canon_md_exact md g : length (gnodes g) <= md -> NoDup (node_ids g) ->
  canon_md md g = Some (nauty_perm g, false).
Proof.
  intros Hmd Hnd. apply canon_md_complete; [exact Hnd|]. unfold nauty_md.
  rewrite nsearch_md_deep by (unfold sfuel; simpl; lia). reflexivity.
Qed.

(* ---------------- whatever the bound: the best permutation so far is a leaf of the full search tree ---------------- *)
Notation lv g := (leaves2 _ lexleb (sigN g) (rfuel g) (children g)).
Definition best_in (T : list (list N)) (a : nacc) : Prop := forall bl bp, fst a = Some (bl, bp) -> In bp T.

Lemma visit_best_in (g : graph) T a p : best_in T a -> In p T -> best_in T (nvisit g a p).
Proof.
  intros Ha Hp bl bp E. unfold nvisit, visit in E. destruct a as [o auts]. cbn [fst snd] in *. destruct o as [[bl0 bp0]|].
  - destruct (ltb strleb (nlabel g p) bl0); cbn [fst] in E.
    + inversion E; subst. exact Hp.
    + destruct (eqb strleb (nlabel g p) bl0); cbn [fst] in E; apply (Ha bl bp); exact E.
  - cbn [fst] in E. inversion E; subst. exact Hp.
Qed.

Theorem nsearch_md_best_in md g T fuel : forall P pre a, incl (lv g fuel P pre) T -> best_in T a ->
  best_in T (fst (nsearch_md md g fuel P pre a)).
Proof.
  induction fuel as [|f IH]; intros P pre a Hin Ha; [exact Ha|].
  cbn [nsearch_md]. destruct (Nat.ltb md (length pre)); [exact Ha|].
  cbn [leaves2] in Hin. fold (nrefine g P) in Hin.
  destruct (first_big (nrefine g P)) as [i|].
  - set (l := children g (nth i (nrefine g P) [])) in *.
    assert (Hl : forall v, In v l -> incl (lv g f (individualise (nrefine g P) i v) (pre ++ [v])) T).
    { intros v Iv p Ip. apply Hin. apply in_flat_map. exists v. split; auto. }
    clearbody l. clear Hin.
    assert (K : forall (s : nacc * bool), best_in T (fst s) ->
                best_in T (fst (fold_left (fun (s : nacc * bool) v => if snd s then s else if npruned g (fst s) (pre ++ [v]) then s
                                   else nsearch_md md g f (individualise (nrefine g P) i v) (pre ++ [v]) (fst s)) l s))).
    { induction l as [|v l IHl]; intros s Hs; [exact Hs|]. cbn [fold_left]. apply IHl.
      - intros v' I. apply Hl. right. exact I.
      - destruct (snd s); [exact Hs|]. destruct (npruned g (fst s) (pre ++ [v])); [exact Hs|].
        apply IH; [apply Hl; left; reflexivity|exact Hs]. }
    apply (K (a, false)). exact Ha.
  - cbn [fst]. apply visit_best_in; [exact Ha|]. apply Hin. left. reflexivity.
Qed.

Theorem canon_md_leaf md g p b : canon_md md g = Some (p, b) -> In p (lv g (sfuel g) (init_partition g) []).
Proof.
  unfold canon_md, nauty_md. intros E.
  pose proof (nsearch_md_best_in md g (lv g (sfuel g) (init_partition g) []) (sfuel g) (init_partition g) [] (None, [])
                (fun x I => I) (fun bl bp (E0 : fst (None, []) = Some (bl, bp)) => match E0 with eq_refl => I end)) as H.
  destruct (fst (fst (nsearch_md md g (sfuel g) (init_partition g) [] (None, [])))) as [[bl bp]|] eqn:Eb; [|discriminate].
  inversion E; subst. apply (H bl p). exact Eb.
Qed.

Theorem canon_md_perm md g p b : NoDup (node_ids g) -> canon_md md g = Some (p, b) -> Permutation p (node_ids g).
Proof.
  intros Hnd E. apply canon_md_leaf in E. exact (search_leaf_perm g (sigN g) _ (init_vpart g) Hnd p E).
Qed.

Theorem canon_md_faithful md g p b : NoDup (node_ids g) -> canon_md md g = Some (p, b) ->
  faithful g (relabel (apply_map (mapping_of p)) g) /\ onto_1N g (relabel (apply_map (mapping_of p)) g).
Proof.
  intros Hnd E. apply relabel_order_spec; [exact Hnd|apply (canon_md_perm md g p b Hnd E)].
Qed.

(* [canon_md] as it is written mentions the search twice; an evaluation runs it once when the result is named *)
Definition md_result (s : nacc * bool) : option (list N * bool) :=
  match fst (fst s) with Some (_, p) => Some (p, snd s) | None => None end.
Lemma canon_md_result md g : canon_md md g = md_result (nauty_md md g).
Proof. reflexivity. Qed.

(* non-vacuity: C4: depth 0 and 1 abandon the search before any leaf (RuntimeError), depth 2 < N is already the unbounded search;
   an 8-node graph whose leaves lie at different depths: with max_depth = 2 a leaf is returned AND early_stop is reported *)
Definition md_g : graph :=
  LG [(1%N, NA [67%N] false 0 0 None); (2%N, NA [67%N] false 0 0 None); (3%N, NA [67%N] false 0 0 None); (4%N, NA [67%N] false 0 0 None)]
     [(1%N, 2%N, EA 2 None); (2%N, 3%N, EA 2 None); (3%N, 4%N, EA 2 None); (4%N, 1%N, EA 2 None)].
Definition md_h : graph :=
  LG (map (fun k => (N.of_nat k, NA [67%N] false 0 0 None)) (seq 1 8))
     [(1%N, 4%N, EA 2 None); (1%N, 8%N, EA 2 None); (2%N, 4%N, EA 2 None); (2%N, 5%N, EA 2 None); (3%N, 6%N, EA 2 None); (3%N, 7%N, EA 2 None); (4%N, 6%N, EA 2 None); (4%N, 8%N, EA 2 None); (5%N, 6%N, EA 2 None); (6%N, 7%N, EA 2 None)].
Example md_ex : canon_md 0 md_g = None /\ canon_md 1 md_g = None /\ canon_md 2 md_g = Some (nauty_perm md_g, false)
                /\ canon_md 4 md_g = Some (nauty_perm md_g, false)
                /\ canon_md 2 md_h = Some ([1%N; 3%N; 2%N; 7%N; 5%N; 8%N; 6%N; 4%N], true) /\ NoDup (node_ids md_h).
Proof.
  assert (Ng : NoDup (node_ids md_g)) by (apply nodupb_sound; reflexivity).
  rewrite !canon_md_result.
  split; [vm_compute; reflexivity|]. split; [vm_compute; reflexivity|].
  split; [rewrite <- canon_md_result; apply canon_md_complete; [exact Ng|vm_compute; reflexivity]|].
  split; [rewrite <- canon_md_result; apply canon_md_exact; [apply Nat.le_refl|exact Ng]|].
  split; [vm_compute; reflexivity|apply nodupb_sound; reflexivity].
Qed.

Print Assumptions canon_md_exact.
Print Assumptions canon_md_faithful.
