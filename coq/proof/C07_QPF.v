(** C07 — SubgraphSearchEngine._quick_pre_filter, the third pre-filter the property anchors.  Unlike the WL filter, the
    use_filter label filters and the fast invariant check it is NOT a necessary condition: its estimate guard (running product of the
    candidate counts > threshold * 1e4) empties results that exist.  Documented behaviour of find_subgraph_mappings ("Empty if none or
    if any guard (pre-filter or enumeration) exceeds the threshold"), kept as it is: the clause "turning any cheap pre-filter on or off
    never changes a result set" is REFUTED for it, with a concrete witness; what does hold is stated next to it.  Stdlib lists. *)
From Coq Require Import List NArith Arith Lia.
From SK Require Import lib.LGraph model.C07_Model proof.C07_Spec proof.C07_Filters proof.C07_Main proof.C07_WL
  proof.C07_Examples.
Import ListNotations.

(* a chain of n carbon atoms (element code 1, charge code 3, order code 5) with ids base+1 .. base+n *)
Fixpoint chain_nodes (base : N) (n : nat) : list (N * attrs) :=
  match n with O => [] | S k => chain_nodes base k ++ [((base + N.of_nat n)%N, aC)] end.
Fixpoint chain_edges (base : N) (n : nat) : list (N * N * attrs) :=
  match n with
  | O => []
  | S k => match k with O => [] | S _ => chain_edges base k ++ [((base + N.of_nat k)%N, (base + N.of_nat n)%N, b1)] end
  end.
Definition chain (base : N) (n : nat) : graph := LG (chain_nodes base n) (chain_edges base n).
Definition hostQ : graph := chain 0 12.
Definition patQ : graph := chain 20 6.
Lemma wf_hostQ : gwf hostQ. Proof. wf_small. Qed.
Lemma wf_patQ : gwf patQ. Proof. wf_small. Qed.

(** witness: a chain of 6 carbons occurs 14 times (7 positions x 2 directions) in a chain of 12 carbons — fewer than threshold = 20
    — but the candidate product 12 * 10^4 * 12 exceeds 20 * 10^4, so with pre_filter=True nothing is returned *)
Example qpf_witness_values :
  length (find_all [1]%N [4]%N 20 false hostQ patQ) = 14%nat /\ find_all [1]%N [4]%N 20 true hostQ patQ = [] /\
  quick_pre_filter [1]%N hostQ patQ 20 = true /\ qpf_guard [1]%N hostQ patQ 20 (node_ids patQ) 1 = true.
Proof. repeat apply conj; vm_compute; reflexivity. Qed.

Theorem quick_pre_filter_refuted : exists na ea thr H P, gwf H /\ gwf P /\
  find_all na ea thr false H P <> [] /\ find_all na ea thr true H P = [].
Proof.
  exists [1]%N, [4]%N, 20%N, hostQ, patQ. split; [exact wf_hostQ|]. split; [exact wf_patQ|]. split.
  - intros E. pose proof (proj1 qpf_witness_values) as L. rewrite E in L. discriminate.
  - apply qpf_witness_values.
Qed.

(** what holds for all inputs: switching the pre-filter on either leaves the result as it is or empties it *)
Theorem quick_pre_filter_only_empties na ea thr H P :
  find_all na ea thr true H P = find_all na ea thr false H P \/ find_all na ea thr true H P = [].
Proof. unfold find_all. simpl. destruct (quick_pre_filter na H P thr); auto. Qed.

(** ... and it leaves it as it is whenever _quick_pre_filter answers False *)
Theorem quick_pre_filter_pass na ea thr H P : quick_pre_filter na H P thr = false ->
  find_all na ea thr true H P = find_all na ea thr false H P.
Proof. intros E. unfold find_all. rewrite E. reflexivity. Qed.

Definition engQ (na ea : list N) : engine := Eng na ea false None.

(** a monomorphism cannot lower the degree: the neighbours of p go injectively to neighbours of f p *)
Lemma mono_degree nm em H P f p : gwf H -> gwf P -> emb false nm em H P f -> In p (node_ids P) ->
  length (nbrs P p) <= length (nbrs H (f p)).
Proof.
  intros WH WP He Ip. rewrite <- (map_length f (nbrs P p)). apply NoDup_incl_length; apply (emb_nbrs _ _ _ H P f p WP He Ip).
Qed.

(** hence the image of every pattern node is one of the candidates _quick_pre_filter counts *)
Lemma mono_candidate na ea H P f p : gwf H -> gwf P -> emb false (nm_eng (engQ na ea)) (em_eng (engQ na ea)) H P f ->
  In p (node_ids P) -> qpf_count na H P p <> 0%N.
Proof.
  intros WH WP He Ip. pose proof (mono_degree _ _ H P f p WH WP He Ip) as Hd. destruct He as (E1 & _).
  destruct (E1 p Ip) as (Ih & Hn). apply nm_eng_spec in Hn. destruct Hn as (Ha & Hh). simpl in Ha.
  unfold qpf_count. destruct (filter _ (node_ids H)) as [|x r] eqn:F; [|simpl; lia].
  assert (I : In (f p) []); [|destruct I]. rewrite <- F. apply filter_In. split; [exact Ih|].
  apply andb_true_intro. split; [apply andb_true_intro; split|].
  - apply forallb_forall. intros k Ik. apply opt_eqb_eq. apply Ha. exact Ik.
  - apply N.leb_le. exact Hh.
  - apply Nat.leb_le. exact Hd.
Qed.

Lemma qpf_loop_guard na H P thr ps : (forall p, In p ps -> qpf_count na H P p <> 0%N) ->
  forall est, qpf_loop na H P thr ps est = qpf_guard na H P thr ps est.
Proof.
  induction ps as [|p r IH]; intros Hc est; simpl; [reflexivity|].
  destruct (N.eqb (qpf_count na H P p) 0) eqn:E; [apply N.eqb_eq in E; exfalso; apply (Hc p); [left; reflexivity | exact E]|].
  destruct (thr * 10000 <? est * qpf_count na H P p)%N; [reflexivity|]. apply IH. intros q Iq. apply Hc. right. exact Iq.
Qed.

(** (5b, third pre-filter) pre_filter on / off gives the same result list whenever the estimate guard does not decide: the only other way
    _quick_pre_filter can answer "skip" is a pattern node without candidate, and then there is provably no monomorphism at all *)
Theorem quick_pre_filter_transparent_below_guard na ea thr H P : gwf H -> gwf P ->
  qpf_guard na H P thr (node_ids P) 1 = false -> find_all na ea thr true H P = find_all na ea thr false H P.
Proof.
  intros WH WP G. destruct (quick_pre_filter na H P thr) eqn:Q; [|apply quick_pre_filter_pass; exact Q].
  unfold find_all. rewrite Q. simpl.
  destruct (monos_g false _ _ H P) as [|m r] eqn:M; [simpl; destruct (thr <? 0)%N; reflexivity|]. exfalso.
  destruct (monos_g_sound false (nm_eng (engQ na ea)) (em_eng (engQ na ea)) H P m (gwf_nodup P WP)) as (_ & _ & He);
    [unfold engQ; rewrite M; left; reflexivity|].
  unfold quick_pre_filter in Q. rewrite (qpf_loop_guard na H P thr (node_ids P)) in Q; [congruence|].
  intros p Ip. apply (mono_candidate na ea H P (mfun m) p WH WP He Ip).
Qed.
