(** C11 (round 5) — the pruning step never changes the set of labelled images of the rule centre in the host
    (model/C11_Image.v).  Any result that is a function of the labelled image - gluing is one: the ITS graph is the host
    with the rule's atom types and bond changes written onto the image (C05) - therefore takes the same values with and
    without pruning; the abstract premise of C11_prune_same_results (invariance under rule automorphisms) is discharged
    for every such function.  Stdlib lists. *)
From Coq Require Import List NArith Bool.
From SK Require Import lib.LGraph model.C11_Model model.C11_Image proof.C11_Aut proof.C11_Dedup proof.C11_Main.
Import ListNotations.

Section Img.
Variable rc : graph.
Variable s : N -> N.
Hypothesis Hs : is_automorphism n_full e_full rc s.
Variables m m' : mapping.
Hypothesis Hdom : forall p h, In (p, h) m' -> In p (node_ids rc).
Hypothesis Hrel : forall p h, In (p, h) m <-> exists p', In (p', h) m' /\ p = s p'.

Lemma image_nodes_same x : In x (image_nodes rc m) <-> In x (image_nodes rc m').
Proof.
  destruct Hs as (_ & _ & S3 & _). unfold image_nodes. rewrite !in_map_iff. split.
  - intros ([p h] & <- & Hin). simpl. apply Hrel in Hin. destruct Hin as (p' & Hin & ->).
    exists (p', h). simpl. split; [|exact Hin]. rewrite (S3 p' (Hdom p' h Hin)). reflexivity.
  - intros ([p' h] & <- & Hin). simpl. exists (s p', h). simpl. split; [|apply Hrel; exists p'; auto].
    rewrite (S3 p' (Hdom p' h Hin)). reflexivity.
Qed.

Lemma image_edges_same x : In x (image_edges rc m) <-> In x (image_edges rc m').
Proof.
  destruct Hs as (_ & _ & _ & S4). unfold image_edges. rewrite !in_flat_map. split.
  - intros ([p h1] & H1 & Hx). apply in_flat_map in Hx. destruct Hx as ([q h2] & H2 & Hx). simpl in Hx.
    apply Hrel in H1. apply Hrel in H2. destruct H1 as (p' & H1 & ->). destruct H2 as (q' & H2 & ->).
    rewrite (S4 p' q' (Hdom p' h1 H1) (Hdom q' h2 H2)) in Hx.
    exists (p', h1). split; [exact H1|]. apply in_flat_map. exists (q', h2). split; [exact H2 | exact Hx].
  - intros ([p' h1] & H1 & Hx). apply in_flat_map in Hx. destruct Hx as ([q' h2] & H2 & Hx). simpl in Hx.
    exists (s p', h1). split; [apply Hrel; exists p'; auto|]. apply in_flat_map. exists (s q', h2).
    split; [apply Hrel; exists q'; auto|]. simpl. rewrite (S4 p' q' (Hdom p' h1 H1) (Hdom q' h2 H2)). exact Hx.
Qed.
End Img.

Lemma in_nodes_spec x l : in_nodes x l = true <-> In x l.
Proof.
  unfold in_nodes. rewrite existsb_exists. split.
  - intros (y & Hy & E). apply andb_true_iff in E. destruct E as [E1 E2]. apply N.eqb_eq in E1. apply oeqb_eq in E2.
    destruct x, y. simpl in *. subst. exact Hy.
  - intros H. exists x. split; [exact H|]. rewrite N.eqb_refl, oeqb_refl. reflexivity.
Qed.

Lemma in_edges_spec x l : in_edges x l = true <-> In x l.
Proof.
  unfold in_edges. rewrite existsb_exists. split.
  - intros (y & Hy & E). apply andb_true_iff in E. destruct E as [E E3]. apply andb_true_iff in E. destruct E as [E1 E2].
    apply N.eqb_eq in E1. apply N.eqb_eq in E2. apply N.eqb_eq in E3. destruct x as [[a b] c], y as [[a' b'] c']. simpl in *. subst. exact Hy.
  - intros H. exists x. split; [exact H|]. rewrite !N.eqb_refl. reflexivity.
Qed.

Lemma same_image_spec rc m m' :
  same_image rc m m' = true <->
  (forall x, In x (image_nodes rc m) <-> In x (image_nodes rc m')) /\
  (forall x, In x (image_edges rc m) <-> In x (image_edges rc m')).
Proof.
  unfold same_image, same_img, img. cbn [fst snd].
  rewrite <- andb_assoc, andb_true_iff, (incl2b_spec in_nodes _ _ in_nodes_spec), (incl2b_spec in_edges _ _ in_edges_spec).
  reflexivity.
Qed.

Theorem prune_same_images (X : Type) (key : X -> mapping) (rc : graph) (raw : list X) :
  simple_graph rc ->
  (forall x p h, In x raw -> In (p, h) (key x) -> In p (node_ids rc)) ->
  (forall x, In x raw -> exists y, In y (prune key rc raw) /\ same_image rc (key x) (key y) = true) /\
  (forall y, In y (prune key rc raw) -> In y raw) /\
  (forall (R : Type) (res : mapping -> R),
     (forall m m', same_image rc m m' = true -> res m = res m') ->
     forall r, In r (map (fun x => res (key x)) raw) <-> In r (map (fun x => res (key x)) (prune key rc raw))).
Proof.
  intros Hg Hdom.
  assert (Hsub : forall y, In y (prune key rc raw) -> In y raw).
  { intros y Hy. exact (subseq_in _ _ _ (prune_subseq X key rc raw) Hy). }
  assert (H1 : forall x, In x raw -> exists y, In y (prune key rc raw) /\ same_image rc (key x) (key y) = true).
  { intros x Hx. destruct (prune_complete_fun X key rc raw Hg Hdom x Hx) as (y & Hy & s & Hs & Hrel).
    exists y. split; [exact Hy|]. apply same_image_spec. split; intros z.
    - apply (image_nodes_same rc s Hs (key x) (key y)); [|exact Hrel]. intros p h Hin. exact (Hdom y p h (Hsub y Hy) Hin).
    - apply (image_edges_same rc s Hs (key x) (key y)); [|exact Hrel]. intros p h Hin. exact (Hdom y p h (Hsub y Hy) Hin). }
  split; [exact H1|]. split; [exact Hsub|].
  intros R res Hres r. rewrite !in_map_iff. split.
  - intros (x & <- & Hx). destruct (H1 x Hx) as (y & Hy & E). exists y. split; [symmetry; apply Hres; exact E | exact Hy].
  - intros (y & <- & Hy). exists y. split; [reflexivity | exact (Hsub y Hy)].
Qed.

Lemma images_ok_true (rc : graph) (raw : list mapping) :
  simple_graph rc -> dom_ok rc raw = true -> images_ok rc raw = true.
Proof.
  intros Hg Hd. unfold images_ok. apply forallb_forall. intros x Hx. cbv zeta. apply existsb_exists.
  destruct (proj1 (prune_same_images mapping (fun m => m) rc raw Hg (fun x p h => dom_ok_spec rc raw Hd x p h)) x Hx) as (y & Hy & E).
  exists (img rc y). split; [apply in_map; exact Hy | exact E].
Qed.

(** non-vacuity: the example of C11_Main (path 1-2-3, three matches): the dropped mirror match has the image of the first *)
Example ex_images :
  images_ok ex_path ex_raw = true /\
  same_image ex_path [(1, 7); (2, 8); (3, 9)]%N [(1, 9); (2, 8); (3, 7)]%N = true /\
  same_image ex_path [(1, 7); (2, 8); (3, 9)]%N [(1, 7); (2, 8); (3, 6)]%N = false.
Proof. vm_compute. repeat split. Qed.
