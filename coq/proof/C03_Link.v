(** C03 — the hypothesis [match_rcb] of the glue theorems is what the matcher's contract gives: a mapping that
    SubgraphSearchEngine's node / edge predicates accept on the rule's reactant side ([match_okb], the predicate C06
    is about) is a valid match of the rule. *)
From Coq Require Import List NArith ZArith Bool.
From SK Require Import lib.Tok lib.LGraph model.C03_Model proof.C03_Proof.
Import ListNotations.
Local Open Scope Z_scope.

Theorem match_okb_rcb host rc m :
  edges_closedb rc = true -> match_okb host (fst (its_decompose rc)) m = true -> match_rcb host rc m = true.
Proof.
  intros Hc H. unfold match_okb in H. unfold match_rcb.
  apply andb_prop in H. destruct H as [H H5]. apply andb_prop in H. destruct H as [H H4].
  apply andb_prop in H. destruct H as [H H3]. rewrite H. clear H. cbn [andb].
  unfold its_decompose, dec_side in *. cbn [fst gnodes gedges] in *.
  rewrite map_length in H3. rewrite H3. cbn [andb].
  rewrite forallb_forall in H4, H5.
  assert (Hn : forall k a, In (k, a) (gnodes rc) -> rc_node_okb host m (k, a) = true).
  { intros k a I. specialize (H4 (k, dec_node (iG a))). apply H4.
    apply in_map_iff. exists (k, a). split; [reflexivity|exact I]. }
  apply andb_true_intro. split.
  - apply forallb_forall. intros [k a] I. apply Hn. exact I.
  - apply forallb_forall. intros [[u v] x] I. unfold rc_edge_okb.
    unfold edges_closedb in Hc. rewrite forallb_forall in Hc. specialize (Hc _ I). cbn [fst snd] in Hc.
    apply andb_prop in Hc. destruct Hc as [Hu Hv]. apply mem_spec in Hu, Hv.
    assert (Hg : forall w, In w (node_ids rc) -> exists h, mget m w = Some h).
    { intros w Iw. unfold node_ids in Iw. apply in_map_iff in Iw. destruct Iw as ([k a] & <- & Iw).
      specialize (Hn k a Iw). unfold rc_node_okb in Hn. cbn [fst] in *. destruct (mget m k); [eauto|discriminate]. }
    destruct (Hg u Hu) as [hu Eu]. destruct (Hg v Hv) as [hv Ev]. rewrite Eu, Ev.
    destruct (0 <? eG x) eqn:Ep; [|reflexivity].
    specialize (H5 (u, v, eG x)). unfold edge_okb in H5. rewrite Eu, Ev in H5. apply H5.
    apply in_flat_map. exists (u, v, x). split; [exact I|]. rewrite Ep. left. reflexivity.
Qed.

Example ex_match_link :
  let rc := LG [(10%N, IN (NA 67%N false 0 0 []) (NA 67%N false 0 0 []) 0 None); (11%N, IN (NA 78%N false 0 0 []) (NA 78%N false 0 1 []) 0 None)]
               [(10%N, 11%N, (2, 4, -2))] in
  let host := LG [(1%N, NA 67%N false 3 0 []); (2%N, NA 78%N false 2 0 [])] [(1%N, 2%N, 2)] in
  edges_closedb rc = true /\ match_okb host (fst (its_decompose rc)) [(10%N, 1%N); (11%N, 2%N)] = true.
Proof. vm_compute. split; reflexivity. Qed.
