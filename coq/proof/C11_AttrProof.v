(** C11 (round 5) — attribute dictionaries and key options (model/C11_Attr.v): numbering the configured attribute tuples
    is injective on the tuples that occur, so the label-preserving automorphisms of [to_graph nk ek ag] are exactly the
    maps that preserve the configured attribute TUPLES (absent attribute = default value); the analysis depends on the
    attribute dictionaries only through those tuples.  Stdlib lists. *)
From Coq Require Import List NArith Bool Lia.
From SK Require Import lib.LGraph model.C11_Model model.C11_Attr proof.C11_Aut proof.C11_WL proof.C11_Main.
Import ListNotations.

(** ---------- numbering by first occurrence ---------- *)
Lemma lidx_ge x tbl : forall i, (i <= lidx x tbl i)%N.
Proof.
  induction tbl as [|y r IH]; intros i; simpl; [lia|].
  destruct (leqb x y); [lia|]. specialize (IH (N.succ i)). lia.
Qed.

Lemma lidx_inj x y tbl : forall i, In x tbl -> In y tbl -> lidx x tbl i = lidx y tbl i -> x = y.
Proof.
  induction tbl as [|z r IH]; intros i Hx Hy; simpl; [destruct Hx|].
  destruct (leqb x z) eqn:Ex; destruct (leqb y z) eqn:Ey.
  - apply leqb_eq in Ex. apply leqb_eq in Ey. congruence.
  - intros E. pose proof (lidx_ge y r (N.succ i)). lia.
  - intros E. pose proof (lidx_ge x r (N.succ i)). lia.
  - intros E. apply (IH (N.succ i)); [| |exact E].
    + destruct Hx as [->|Hx]; [|exact Hx]. rewrite (proj2 (leqb_eq x x) eq_refl) in Ex. discriminate.
    + destruct Hy as [->|Hy]; [|exact Hy]. rewrite (proj2 (leqb_eq y y) eq_refl) in Ey. discriminate.
Qed.

(** ---------- lookups through a relabelling of the attribute component ---------- *)
Lemma assoc_map_snd {V W} (f : V -> W) u (l : list (N * V)) :
  assoc u (map (fun p => (fst p, f (snd p))) l) = option_map f (assoc u l).
Proof. induction l as [|[k v] r IH]; simpl; [reflexivity|]. destruct (N.eqb u k); [reflexivity | exact IH]. Qed.

Lemma find_edge_map {B C} (f : B -> C) u v (es : list (N * N * B)) :
  find_edge u v (map (fun e => (fst e, f (snd e))) es) = option_map f (find_edge u v es).
Proof.
  induction es as [|[[a b] x] r IH]; simpl; [reflexivity|].
  destruct ((N.eqb a u && N.eqb b v) || (N.eqb a v && N.eqb b u)); [reflexivity | exact IH].
Qed.

Lemma nbrs_map {B C} (f : B -> C) (A1 A2 : Type) (n1 : list (N * A1)) (n2 : list (N * A2)) (es : list (N * N * B)) u :
  nbrs (LG n2 (map (fun e => (fst e, f (snd e))) es)) u = nbrs (LG n1 es) u.
Proof.
  unfold nbrs. simpl. induction es as [|[[a b] x] r IH]; simpl; [reflexivity|]. rewrite IH. reflexivity.
Qed.

(** a graph whose labels are computed from a base graph ([f], [h]) and then numbered ([F], [G]): a numbering that is
    the first-occurrence index of a projection ([pi], [rho]) is preserved exactly when the projection of the base label is *)
Section View.
Variables A0 B0 A B : Type.
Variable ag : lgraph A0 B0.
Variable f : A0 -> A.
Variable h : B0 -> B.
Let t : lgraph A B := LG (map (fun p => (fst p, f (snd p))) (gnodes ag)) (map (fun e => (fst e, h (snd e))) (gedges ag)).
Variable F : A -> nlab.
Variable G : B -> elab.
Let g : graph := LG (map (fun p => (fst p, F (snd p))) (gnodes t)) (map (fun e => (fst e, G (snd e))) (gedges t)).

Lemma view_ids : node_ids g = node_ids ag.
Proof. unfold node_ids, g, t. simpl. rewrite !map_map. apply map_ext. reflexivity. Qed.

Lemma view_label u : label g u = option_map (fun a => F (f a)) (label ag u).
Proof. unfold label, g, t. simpl. rewrite map_map. exact (assoc_map_snd (fun a => F (f a)) u (gnodes ag)). Qed.

Lemma view_adj u v : LGraph.adj g u v = option_map (fun b => G (h b)) (LGraph.adj ag u v).
Proof. unfold LGraph.adj, g, t. simpl. rewrite map_map. exact (find_edge_map (fun b => G (h b)) u v (gedges ag)). Qed.

Variable fn : nlab -> N.
Variable pi : A -> list N.
Hypothesis Hn : forall a, fn (F a) = lidx (pi a) (map (fun p => pi (snd p)) (gnodes t)) 0%N.

Lemma view_lab_eq u v :
  lab_of fn g u = lab_of fn g v <-> option_map (fun a => pi (f a)) (label ag u) = option_map (fun a => pi (f a)) (label ag v).
Proof.
  unfold lab_of. rewrite !view_label.
  destruct (label ag u) as [x|] eqn:Eu; destruct (label ag v) as [y|] eqn:Ev; simpl; rewrite ?Hn;
    try (split; [discriminate | discriminate]); try tauto.
  split.
  - intros [= E]. f_equal. apply (lidx_inj (pi (f x)) (pi (f y)) (map (fun p => pi (snd p)) (gnodes t)) 0%N); [| |exact E].
    + apply assoc_in in Eu. unfold t. simpl. rewrite map_map. apply in_map_iff. exists (u, x). split; [reflexivity | exact Eu].
    + apply assoc_in in Ev. unfold t. simpl. rewrite map_map. apply in_map_iff. exists (v, y). split; [reflexivity | exact Ev].
  - intros [= ->]. reflexivity.
Qed.

Variable fe : elab -> N.
Variable rho : B -> list N.
Hypothesis He : forall b, fe (G b) = lidx (rho b) (map (fun e => rho (snd e)) (gedges t)) 0%N.

Lemma view_adj_eq u v u' v' :
  adj_of fe g u v = adj_of fe g u' v' <->
  option_map (fun b => rho (h b)) (LGraph.adj ag u v) = option_map (fun b => rho (h b)) (LGraph.adj ag u' v').
Proof.
  unfold adj_of. rewrite !view_adj.
  destruct (LGraph.adj ag u v) as [x|] eqn:Eu; destruct (LGraph.adj ag u' v') as [y|] eqn:Ev; simpl; rewrite ?He;
    try (split; [discriminate | discriminate]); try tauto.
  split.
  - intros [= E]. f_equal. apply (lidx_inj (rho (h x)) (rho (h y)) (map (fun e => rho (snd e)) (gedges t)) 0%N); [| |exact E].
    + apply find_edge_some in Eu. destruct Eu as (a & b & Hin & _). unfold t. simpl. rewrite map_map.
      apply in_map_iff. exists (a, b, x). split; [reflexivity | exact Hin].
    + apply find_edge_some in Ev. destruct Ev as (a & b & Hin & _). unfold t. simpl. rewrite map_map.
      apply in_map_iff. exists (a, b, y). split; [reflexivity | exact Hin].
  - intros [= ->]. reflexivity.
Qed.

Lemma view_automorphism s :
  is_automorphism fn fe g s <->
  (forall u, In u (node_ids ag) -> In (s u) (node_ids ag)) /\
  (forall u v, In u (node_ids ag) -> In v (node_ids ag) -> s u = s v -> u = v) /\
  (forall u, In u (node_ids ag) ->
     option_map (fun a => pi (f a)) (label ag (s u)) = option_map (fun a => pi (f a)) (label ag u)) /\
  (forall u v, In u (node_ids ag) -> In v (node_ids ag) ->
     option_map (fun b => rho (h b)) (LGraph.adj ag (s u) (s v)) = option_map (fun b => rho (h b)) (LGraph.adj ag u v)).
Proof.
  unfold is_automorphism. rewrite view_ids.
  split; intros (H1 & H2 & H3 & H4); (split; [exact H1 | split; [exact H2 | split]]).
  - intros u Hu. apply view_lab_eq. apply H3. exact Hu.
  - intros u v Hu Hv. apply view_adj_eq. apply H4; assumption.
  - intros u Hu. apply view_lab_eq. apply H3. exact Hu.
  - intros u v Hu Hv. apply view_adj_eq. apply H4; assumption.
Qed.
End View.

(** ---------- the configured tuples ---------- *)
(** an automorphism of the attribute graph with respect to the configured keys: a permutation of the nodes that keeps
    the tuple of configured node attribute values (absent = default) and maps edges to edges with the same tuple of
    configured edge attribute values, non-edges to non-edges *)
Definition attr_automorphism (nk ek : list N) (ag : agraph) (s : N -> N) : Prop :=
  (forall u, In u (node_ids ag) -> In (s u) (node_ids ag)) /\
  (forall u v, In u (node_ids ag) -> In v (node_ids ag) -> s u = s v -> u = v) /\
  (forall u, In u (node_ids ag) ->
     option_map (pick node_default nk) (label ag (s u)) = option_map (pick node_default nk) (label ag u)) /\
  (forall u v, In u (node_ids ag) -> In v (node_ids ag) ->
     option_map (pick edge_default ek) (LGraph.adj ag (s u) (s v)) = option_map (pick edge_default ek) (LGraph.adj ag u v)).

(** ---------- well-formedness is about ids and edge endpoints only ---------- *)
Lemma map_attr_edges_in {B C} (f : B -> C) (es : list (N * N * B)) a b y :
  In (a, b, y) (map (fun e => (fst e, f (snd e))) es) -> exists x, In (a, b, x) es /\ y = f x.
Proof.
  intros H. apply in_map_iff in H. destruct H as ([[a' b'] x] & E & Hin). simpl in E. inversion E; subst.
  exists x. split; [exact Hin | reflexivity].
Qed.

Lemma wf_map_attrs {A1 A2 B C} (fa : A1 -> A2) (f : B -> C) (g : lgraph A1 B) :
  wf g -> wf (LG (map (fun p => (fst p, fa (snd p))) (gnodes g)) (map (fun e => (fst e, f (snd e))) (gedges g))).
Proof.
  intros (W1 & W2 & W3).
  assert (Hids : node_ids (LG (map (fun p => (fst p, fa (snd p))) (gnodes g)) (map (fun e => (fst e, f (snd e))) (gedges g)))
                 = node_ids g).
  { unfold node_ids. simpl. rewrite map_map. apply map_ext. reflexivity. }
  split; [rewrite Hids; exact W1 | split].
  - intros a b y Hin. simpl in Hin. apply map_attr_edges_in in Hin. destruct Hin as (x & Hin & _).
    rewrite Hids. apply (W2 a b x Hin).
  - intros l1 a b y l2 E. simpl in E. apply map_eq_app in E. destruct E as (m1 & m2 & E & E1 & E2).
    apply map_eq_cons in E2. destruct E2 as ([[a' b'] x] & m2' & -> & Ex & E2). simpl in Ex. inversion Ex; subst.
    destruct (W3 _ _ _ _ _ E) as [N1 N2].
    rewrite !find_edge_map, N1, N2. split; reflexivity.
Qed.

(** ---------- the interned graph of a relabelled graph ---------- *)
Section Interned.
Variables A0 B0 : Type.
Variable ag : lgraph A0 B0.
Variable f : A0 -> list N.
Variable h : B0 -> list N.
Let t : tgraph := LG (map (fun p => (fst p, f (snd p))) (gnodes ag)) (map (fun e => (fst e, h (snd e))) (gedges ag)).
Let F (x : list N) : nlab := let c := lidx x (map snd (gnodes t)) 0%N in (c, c, c).
Let G (x : list N) : elab := let c := lidx x (map snd (gedges t)) 0%N in (c, c).

Lemma interned_ids : node_ids (intern t) = node_ids ag.
Proof. exact (view_ids _ _ _ _ ag f h F G). Qed.

Lemma interned_wf : wf ag -> wf (intern t).
Proof. intros H. exact (wf_map_attrs F G t (wf_map_attrs f h ag H)). Qed.

(** any of the three label projections reads the number of the tuple *)
Lemma interned_automorphism fn fe s : (forall c, fn (c, c, c) = c) -> (forall c, fe (c, c) = c) ->
  (is_automorphism fn fe (intern t) s <->
   (forall u, In u (node_ids ag) -> In (s u) (node_ids ag)) /\
   (forall u v, In u (node_ids ag) -> In v (node_ids ag) -> s u = s v -> u = v) /\
   (forall u, In u (node_ids ag) -> option_map f (label ag (s u)) = option_map f (label ag u)) /\
   (forall u v, In u (node_ids ag) -> In v (node_ids ag) ->
      option_map h (LGraph.adj ag (s u) (s v)) = option_map h (LGraph.adj ag u v))).
Proof.
  intros Hn He.
  exact (view_automorphism _ _ _ _ ag f h F G fn (fun x => x) (fun a => Hn _) fe (fun x => x) (fun b => He _) s).
Qed.
End Interned.

Lemma to_graph_ids nk ek ag : node_ids (to_graph nk ek ag) = node_ids ag.
Proof. exact (interned_ids _ _ ag (pick node_default nk) (pick edge_default ek)). Qed.

Lemma to_graph_wf nk ek ag : wf ag -> wf (to_graph nk ek ag).
Proof. exact (interned_wf _ _ ag (pick node_default nk) (pick edge_default ek)). Qed.

Lemma to_graph_automorphism fn fe nk ek ag s : (forall c, fn (c, c, c) = c) -> (forall c, fe (c, c) = c) ->
  (is_automorphism fn fe (to_graph nk ek ag) s <-> attr_automorphism nk ek ag s).
Proof. exact (interned_automorphism _ _ ag (pick node_default nk) (pick edge_default ek) fn fe s). Qed.

(** ---------- options and defaults ---------- *)
Lemma pick_absent_is_default dflt keys k d :
  assoc k d = None -> pick dflt keys ((k, dflt k) :: d) = pick dflt keys d.
Proof.
  intros Hk. unfold pick. apply map_ext. intros k'. simpl.
  destruct (N.eqb_spec k' k) as [->|Hne]; [rewrite Hk; reflexivity | reflexivity].
Qed.

Lemma pick_unused_key dflt keys k v d : ~ In k keys -> pick dflt keys ((k, v) :: d) = pick dflt keys d.
Proof.
  intros Hk. unfold pick. apply map_ext_in. intros k' Hin. simpl.
  destruct (N.eqb_spec k' k) as [->|Hne]; [contradiction | reflexivity].
Qed.

Lemma key_options :
  (forall d, exact_keys d None = d) /\ (forall d, exact_keys d (Some []) = d) /\
  (forall d k r, exact_keys d (Some (k :: r)) = k :: r) /\
  (forall d, wl_keys d None = d) /\ (forall d l, wl_keys d (Some l) = l) /\
  (forall dflt d, pick dflt [] d = []).
Proof. repeat split. Qed.

(** ---------- everything together ---------- *)
Theorem configured_labels_only (nk ek : list N) (ag : agraph) :
  (* 1. the analysed graph has the nodes of the attribute graph and is well-formed when that is *)
  node_ids (to_graph nk ek ag) = node_ids ag /\
  (wf ag -> wf (to_graph nk ek ag)) /\
  (* 2. its label-preserving automorphisms are the maps preserving the configured attribute tuples *)
  (forall s, is_automorphism n_exact e_order (to_graph nk ek ag) s <-> attr_automorphism nk ek ag s) /\
  (forall s, is_automorphism n_wl e_order (to_graph nk ek ag) s <-> attr_automorphism nk ek ag s) /\
  (* 3. so the estimate after any number of sweeps never separates nodes such a map exchanges *)
  (wf ag -> forall s k u, attr_automorphism nk ek ag s -> In u (node_ids ag) ->
     col (wl n_exact e_order (to_graph nk ek ag) k) (s u) = col (wl n_exact e_order (to_graph nk ek ag) k) u) /\
  (* 4. only the configured tuples matter *)
  (forall ag', picked nk ek ag' = picked nk ek ag -> to_graph nk ek ag' = to_graph nk ek ag) /\
  (* 5. an absent attribute is its default value; an attribute outside the configured keys is not looked at *)
  (forall k u d r l2, gnodes ag = r ++ (u, d) :: l2 -> assoc k d = None ->
     picked nk ek (LG (r ++ (u, (k, node_default k) :: d) :: l2) (gedges ag)) = picked nk ek ag) /\
  (forall k v u d r l2, gnodes ag = r ++ (u, d) :: l2 -> ~ In k nk ->
     picked nk ek (LG (r ++ (u, (k, v) :: d) :: l2) (gedges ag)) = picked nk ek ag).
Proof.
  split; [apply to_graph_ids | split; [apply to_graph_wf | split; [|split; [|split; [|split; [|split]]]]]].
  - intros s. apply to_graph_automorphism; intros c; reflexivity.
  - intros s. apply to_graph_automorphism; intros c; reflexivity.
  - intros Hw s k u Hs Hu.
    apply (wl_invariant n_exact e_order _ (to_graph_wf nk ek ag Hw)); [|rewrite to_graph_ids; exact Hu].
    apply (to_graph_automorphism n_exact e_order); [intros c; reflexivity | intros c; reflexivity | exact Hs].
  - intros ag' E. unfold to_graph. rewrite E. reflexivity.
  - intros k u d r l2 E Hk. unfold picked. simpl. rewrite E, !map_app. simpl.
    rewrite (pick_absent_is_default node_default nk k d Hk). reflexivity.
  - intros k v u d r l2 E Hk. unfold picked. simpl. rewrite E, !map_app. simpl.
    rewrite (pick_unused_key node_default nk k v d Hk). reflexivity.
Qed.

(** ---------- non-vacuity ---------- *)
(** C-C-C whose third atom has no charge entry, the first carries an hcount the others lack: with the default keys the
    mirror is an automorphism (absent charge = 0); with key hcount it is not. *)
Definition ex_ag : agraph :=
  LG [ (1%N, [(K_element, 5%N); (K_charge, V_zero); (K_hcount, 7%N)]); (2%N, [(K_element, 5%N); (K_charge, V_zero)]);
       (3%N, [(K_element, 5%N)]) ]
     [ (1%N, 2%N, [(K_order, V_one)]); (2%N, 3%N, []) ].
Definition ex_mirror (u : N) : N := if N.eqb u 1 then 3%N else if N.eqb u 3 then 1%N else u.

Example ex_attr :
  a_count (analyze n_exact e_order (to_graph (exact_keys DEF_NODE (Some [])) (exact_keys DEF_EDGE None) ex_ag)) = 2%N /\
  a_count (analyze n_exact e_order (to_graph (exact_keys DEF_NODE (Some [K_hcount])) (exact_keys DEF_EDGE None) ex_ag)) = 1%N /\
  In (aut_pairs (to_graph DEF_NODE DEF_EDGE ex_ag) ex_mirror) (auts n_exact e_order (to_graph DEF_NODE DEF_EDGE ex_ag)) /\
  wfb (to_graph DEF_NODE DEF_EDGE ex_ag) = true /\
  map snd (wl n_exact e_order (to_graph (wl_keys DEF_NODE (Some [])) (wl_keys DEF_EDGE (Some [])) ex_ag) 10) = [0; 1; 0]%N.
Proof. vm_compute. repeat split. right. left. reflexivity. Qed.

(** ---------- graph_automorphisms: equality of attribute dictionaries up to ignored keys ---------- *)
(** Python: {k: v for k, v in a.items() if k not in skip} == {k: v for k, v in b.items() if k not in skip} *)
Definition dict_eq (skip : list N) (d d' : attrs) : Prop := forall k, ~ In k skip -> assoc k d = assoc k d'.

Lemma dict_tuple_eq skip allk d d' :
  (forall k v, assoc k d = Some v -> In k allk) -> (forall k v, assoc k d' = Some v -> In k allk) ->
  (dict_tuple skip allk d = dict_tuple skip allk d' <-> dict_eq skip d d').
Proof.
  intros Hd Hd'. unfold dict_tuple, dict_eq. split.
  - intros E k Hk. destruct (in_dec N.eq_dec k allk) as [Hin|Hout].
    + pose proof (ext_in_map E k Hin) as Ek. cbv beta in Ek.
      destruct (LGraph.mem k skip) eqn:Em; [apply LGraph.mem_spec in Em; contradiction|].
      destruct (assoc k d) as [v|]; destruct (assoc k d') as [v'|]; try reflexivity.
      * f_equal. lia.
      * exfalso. lia.
      * exfalso. lia.
    + destruct (assoc k d) as [v|] eqn:E1; [exfalso; exact (Hout (Hd k v E1))|].
      destruct (assoc k d') as [v'|] eqn:E2; [exfalso; exact (Hout (Hd' k v' E2))|]. reflexivity.
  - intros H. apply map_ext_in. intros k _. destruct (LGraph.mem k skip) eqn:Em; [reflexivity|].
    rewrite (H k); [reflexivity|]. intros Hin. apply (proj2 (LGraph.mem_spec k skip)) in Hin. rewrite Hin in Em. discriminate.
Qed.

Lemma keys_of_covers {X} (sel : X -> attrs) (l : list X) x k v :
  In x l -> assoc k (sel x) = Some v -> In k (keys_of sel l).
Proof.
  intros Hx Hk. unfold keys_of. apply dedupN_in. apply in_flat_map. exists x. split; [exact Hx|].
  apply assoc_in in Hk. change k with (fst (k, v)). apply in_map. exact Hk.
Qed.

(** relation between two optional dictionaries: both absent, or both present and equal up to [skip] *)
Definition same_dict (skip : list N) (o o' : option attrs) : Prop :=
  match o, o' with
  | Some d, Some d' => dict_eq skip d d'
  | None, None => True
  | _, _ => False
  end.

Lemma dict_tuple_same skip (ag : agraph) u v :
  option_map (dict_tuple skip (keys_of snd (gnodes ag))) (label ag u) =
  option_map (dict_tuple skip (keys_of snd (gnodes ag))) (label ag v) <-> same_dict skip (label ag u) (label ag v).
Proof.
  unfold same_dict.
  destruct (label ag u) as [d|] eqn:Eu; destruct (label ag v) as [d'|] eqn:Ev; simpl;
    try (split; [discriminate | intros []]); try tauto.
  assert (C : forall w x, label ag w = Some x -> forall k y, assoc k x = Some y -> In k (keys_of snd (gnodes ag))).
  { intros w x Hw k y Hk. apply assoc_in in Hw. exact (keys_of_covers snd (gnodes ag) (w, x) k y Hw Hk). }
  rewrite <- (dict_tuple_eq skip (keys_of snd (gnodes ag)) d d' (C u d Eu) (C v d' Ev)).
  split; [intros [= E]; exact E | intros ->; reflexivity].
Qed.

Lemma dict_tuple_same_e (ag : agraph) u v u' v' :
  option_map (dict_tuple [] (keys_of snd (gedges ag))) (LGraph.adj ag u v) =
  option_map (dict_tuple [] (keys_of snd (gedges ag))) (LGraph.adj ag u' v') <-> same_dict [] (LGraph.adj ag u v) (LGraph.adj ag u' v').
Proof.
  unfold same_dict.
  destruct (LGraph.adj ag u v) as [d|] eqn:Eu; destruct (LGraph.adj ag u' v') as [d'|] eqn:Ev; simpl;
    try (split; [discriminate | intros []]); try tauto.
  assert (C : forall a b x, LGraph.adj ag a b = Some x -> forall k y, assoc k x = Some y -> In k (keys_of snd (gedges ag))).
  { intros a b x Hx k y Hk. apply find_edge_some in Hx. destruct Hx as (a' & b' & Hin & _).
    exact (keys_of_covers snd (gedges ag) (a', b', x) k y Hin Hk). }
  rewrite <- (dict_tuple_eq [] (keys_of snd (gedges ag)) d d' (C u v d Eu) (C u' v' d' Ev)).
  split; [intros [= E]; exact E | intros ->; reflexivity].
Qed.

(** a symmetry of the rule: a permutation of the nodes that keeps every node attribute except the ignored ones and
    every edge attribute (non-edges go to non-edges) *)
Definition rule_automorphism (skip : list N) (ag : agraph) (s : N -> N) : Prop :=
  (forall u, In u (node_ids ag) -> In (s u) (node_ids ag)) /\
  (forall u v, In u (node_ids ag) -> In v (node_ids ag) -> s u = s v -> u = v) /\
  (forall u, In u (node_ids ag) -> same_dict skip (label ag (s u)) (label ag u)) /\
  (forall u v, In u (node_ids ag) -> In v (node_ids ag) -> same_dict [] (LGraph.adj ag (s u) (s v)) (LGraph.adj ag u v)).

Lemma rule_automorphism_tuples skip ag s :
  (forall u, In u (node_ids ag) -> In (s u) (node_ids ag)) /\
  (forall u v, In u (node_ids ag) -> In v (node_ids ag) -> s u = s v -> u = v) /\
  (forall u, In u (node_ids ag) ->
     option_map (dict_tuple skip (keys_of snd (gnodes ag))) (label ag (s u)) =
     option_map (dict_tuple skip (keys_of snd (gnodes ag))) (label ag u)) /\
  (forall u v, In u (node_ids ag) -> In v (node_ids ag) ->
     option_map (dict_tuple [] (keys_of snd (gedges ag))) (LGraph.adj ag (s u) (s v)) =
     option_map (dict_tuple [] (keys_of snd (gedges ag))) (LGraph.adj ag u v)) <->
  rule_automorphism skip ag s.
Proof.
  unfold rule_automorphism. split; intros (H1 & H2 & H3 & H4); (split; [exact H1 | split; [exact H2 | split]]).
  - intros u Hu. apply dict_tuple_same. exact (H3 u Hu).
  - intros u v Hu Hv. apply dict_tuple_same_e. exact (H4 u v Hu Hv).
  - intros u Hu. apply dict_tuple_same. exact (H3 u Hu).
  - intros u v Hu Hv. apply dict_tuple_same_e. exact (H4 u v Hu Hv).
Qed.

Lemma to_rule_graph_ids skip ag : node_ids (to_rule_graph skip ag) = node_ids ag.
Proof. exact (interned_ids _ _ ag (dict_tuple skip (keys_of snd (gnodes ag))) (dict_tuple [] (keys_of snd (gedges ag)))). Qed.

Lemma to_rule_graph_wf skip ag : wf ag -> wf (to_rule_graph skip ag).
Proof. exact (interned_wf _ _ ag (dict_tuple skip (keys_of snd (gnodes ag))) (dict_tuple [] (keys_of snd (gedges ag)))). Qed.

Theorem rule_labels (skip : list N) (ag : agraph) :
  node_ids (to_rule_graph skip ag) = node_ids ag /\
  (wf ag -> wf (to_rule_graph skip ag)) /\
  (forall s, is_automorphism n_full e_full (to_rule_graph skip ag) s <-> rule_automorphism skip ag s) /\
  (wf ag -> forall m, In m (rule_auts_attr skip ag) <->
     exists s, rule_automorphism skip ag s /\ m = aut_pairs (to_rule_graph skip ag) s).
Proof.
  assert (Haut : forall s, is_automorphism n_full e_full (to_rule_graph skip ag) s <-> rule_automorphism skip ag s).
  { intros s. etransitivity; [|exact (rule_automorphism_tuples skip ag s)].
    exact (interned_automorphism _ _ ag (dict_tuple skip (keys_of snd (gnodes ag))) (dict_tuple [] (keys_of snd (gedges ag)))
             n_full e_full s (fun c => eq_refl) (fun c => eq_refl)). }
  split; [apply to_rule_graph_ids | split; [apply to_rule_graph_wf | split; [exact Haut|]]].
  intros Hw m. unfold rule_auts_attr, rule_auts.
  rewrite (auts_listing n_full e_full (to_rule_graph skip ag) (wf_simple _ (to_rule_graph_wf skip ag Hw)) m).
  split; intros (s & Hs & E); exists s; (split; [apply Haut; exact Hs | exact E]).
Qed.

(** the rule C-C whose first atom carries atom_map 1 and the second atom_map 2: with atom_map ignored the exchange is a
    symmetry, with nothing ignored it is not; an edge attribute always counts *)
Definition ex_rule : agraph :=
  LG [ (1%N, [(K_element, 5%N); (K_atom_map, 10%N)]); (2%N, [(K_atom_map, 11%N); (K_element, 5%N)]) ]
     [ (1%N, 2%N, [(K_order, V_one)]) ].
Example ex_rule_labels :
  length (rule_auts_attr [K_atom_map] ex_rule) = 2%nat /\ length (rule_auts_attr [] ex_rule) = 1%nat /\
  wfb (to_rule_graph [K_atom_map] ex_rule) = true.
Proof. vm_compute. repeat split. Qed.

(** ---------- clause 4 in terms of the attribute dictionaries of rule.rc.raw ---------- *)
From SK Require Import proof.C11_PruneClass.

Theorem prune_attr (X : Type) (key : X -> mapping) (skip : list N) (rc : agraph) (raw : list X) :
  wf rc ->
  (forall x p h, In x raw -> In (p, h) (key x) -> In p (node_ids rc)) ->
  (forall x, In x raw ->
     exists y, In y (prune key (to_rule_graph skip rc) raw) /\
       exists s, rule_automorphism skip rc s /\
         forall p h, In (p, h) (key x) <-> exists p', In (p', h) (key y) /\ p = s p') /\
  (NoDup raw ->
   forall x, In x (prune key (to_rule_graph skip rc) raw) <->
     (In x raw /\
      forall l1 l2, raw = l1 ++ x :: l2 -> forall z, In z l1 ->
        ~ exists s, rule_automorphism skip rc s /\
                    forall p h, In (p, h) (key x) <-> exists p', In (p', h) (key z) /\ p = s p')).
Proof.
  intros Hw Hdom.
  destruct (rule_labels skip rc) as (Hids & Hwf & Haut & _).
  pose proof (wf_simple _ (Hwf Hw)) as Hs.
  assert (Hdom' : forall x p h, In x raw -> In (p, h) (key x) -> In p (node_ids (to_rule_graph skip rc))).
  { intros x p h Hx Hin. rewrite Hids. exact (Hdom x p h Hx Hin). }
  split.
  - intros x Hx. destruct (prune_complete_fun X key (to_rule_graph skip rc) raw Hs Hdom' x Hx) as (y & Hy & s & Hsa & E).
    exists y. split; [exact Hy|]. exists s. split; [apply Haut; exact Hsa | exact E].
  - intros Hnd x.
    rewrite (prune_first_of_class X key (to_rule_graph skip rc) raw Hs Hnd (fun x Hx p h Hin => Hdom' x p h Hx Hin) x).
    split; intros (Hx & Hf); (split; [exact Hx|]); intros l1 l2 E z Hz (s & Hsa & Es); apply (Hf l1 l2 E z Hz);
      exists s; (split; [apply Haut; exact Hsa | exact Es]).
Qed.
