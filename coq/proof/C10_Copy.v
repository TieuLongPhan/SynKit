(** C10 — proofs: G.copy() keeps a well-formed graph well formed and keeps both lookups; neighbours. *)
From Coq Require Import List NArith ZArith Bool Lia.
From SK Require Import lib.LGraph lib.StrJoin model.C10_Model proof.C10_Views proof.C10_Build.
Import ListNotations.
Local Open Scope Z_scope.

Lemma uniq_app (l1 l2 : list (N * N * eatt)) :
  uniq_pairs l1 = true -> uniq_pairs l2 = true ->
  (forall a b x, In (a, b, x) l1 -> find_edge a b l2 = None) -> uniq_pairs (l1 ++ l2) = true.
Proof.
  induction l1 as [|[[a b] x] r IH]; intros U1 U2 D; [exact U2|]. simpl in *.
  rewrite find_edge_app. destruct (find_edge a b r) eqn:F; [discriminate|].
  rewrite (D a b x) by (left; reflexivity). apply IH; auto. intros a' b' x' H. apply (D a' b' x'). right. exact H.
Qed.

Lemma find_inc_unseen_none seen n es u v : @find_edge eatt u v es = None -> find_edge u v (inc_unseen seen n es) = None.
Proof.
  intros F. destruct (find_edge u v (inc_unseen seen n es)) as [x|] eqn:E; [|reflexivity]. exfalso.
  apply find_some_in in E. destruct E as (a & b & Hin & P). apply in_inc_unseen in Hin. destruct Hin as [-> [H|H]].
  - apply (in_find_some es n b x u v H P). exact F.
  - apply (in_find_some es b n x u v H); [|exact F]. rewrite pair_eqb_swap_l. exact P.
Qed.

Lemma uniq_inc_unseen seen n es : uniq_pairs es = true -> uniq_pairs (inc_unseen seen n es) = true.
Proof.
  induction es as [|[[a b] x] r IH]; intros U; [reflexivity|]. simpl in U.
  destruct (find_edge a b r) eqn:F; [discriminate|]. specialize (IH U).
  change (inc_unseen seen n ((a, b, x) :: r)) with
    ((if N.eqb a n then (if mem b seen then [] else [(n, b, x)])
      else if N.eqb b n then (if mem a seen then [] else [(n, a, x)]) else []) ++ inc_unseen seen n r).
  destruct (N.eqb_spec a n) as [->|Ha].
  - destruct (mem b seen); [exact IH|]. simpl. rewrite (find_inc_unseen_none seen n r n b F). exact IH.
  - destruct (N.eqb_spec b n) as [->|Hb]; [|exact IH]. destruct (mem a seen); [exact IH|]. simpl.
    rewrite find_edge_sym in F. rewrite (find_inc_unseen_none seen n r n a F). exact IH.
Qed.

Lemma in_edges_from_ends rest : forall seen es a b (x : eatt),
  In (a, b, x) (edges_from seen rest es) -> In a rest /\ ~ In b seen.
Proof.
  induction rest as [|n r IH]; intros seen es a b x; simpl; [intros []|]. rewrite in_app_iff. intros [H|H].
  - unfold inc_unseen in H. apply in_flat_map in H. destruct H as ([[a0 b0] x0] & _ & H).
    destruct (N.eqb a0 n).
    + destruct (mem b0 seen) eqn:M; [destruct H|]. destruct H as [E|[]]. inversion E; subst.
      split; [left; reflexivity|]. intros Hin. apply mem_spec in Hin. congruence.
    + destruct (N.eqb b0 n); [|destruct H]. destruct (mem a0 seen) eqn:M; [destruct H|]. destruct H as [E|[]]. inversion E; subst.
      split; [left; reflexivity|]. intros Hin. apply mem_spec in Hin. congruence.
  - destruct (IH _ _ _ _ _ H) as [H1 H2]. split; [right; exact H1|]. intros Hin. apply H2. right. exact Hin.
Qed.

Lemma uniq_edges_from rest : forall seen es, uniq_pairs es = true -> NoDup rest -> uniq_pairs (edges_from seen rest es) = true.
Proof.
  induction rest as [|n r IH]; intros seen es U Hnd; [reflexivity|]. inversion Hnd as [|? ? Hnot Hnd']; subst. simpl.
  apply uniq_app; [apply uniq_inc_unseen; exact U|apply IH; assumption|].
  intros a b x Hin. apply in_inc_unseen in Hin. destruct Hin as [-> _].
  destruct (find_edge n b (edges_from (n :: seen) r es)) as [y|] eqn:F; [|reflexivity]. exfalso.
  apply find_some_in in F. destruct F as (a' & b' & Hin' & P). apply in_edges_from_ends in Hin'. destruct Hin' as [Ha' Hb'].
  apply pair_eqb_spec in P. destruct P as [[-> ->]|[-> ->]]; [contradiction|]. apply Hb'. left. reflexivity.
Qed.

Lemma gwf_copy (g : gr) : gwf g -> gwf (copy g).
Proof.
  intros W. split; [exact (gwf_nd g W)|apply uniq_edges_from; [exact (gwf_uq g W)|exact (gwf_nd g W)]|].
  intros a b x Hin. simpl in Hin. apply in_edges_from in Hin. unfold has_node, label. simpl.
  destruct Hin as [H|H]; destruct (gwf_cl g W _ _ _ H); auto.
Qed.
Lemma adj_copy (g : gr) u v : gwf g -> adj (copy g) u v = adj g u v.
Proof.
  intros W. unfold adj at 1. simpl. destruct (find_edge u v (edges_iter g)) as [x|] eqn:F.
  - apply find_some_in in F. destruct F as (a & b & Hin & P). apply (edges_iter_data g a b x W) in Hin.
    rewrite <- (adj_pair g _ _ _ _ P). auto.
  - pose proof (has_pair_edges_iter g u v W) as H. rewrite has_pair_find, F in H. simpl in H.
    destruct (adj g u v); [discriminate|reflexivity].
Qed.
Lemma label_copy (g : gr) n : label (copy g) n = label g n.
Proof. reflexivity. Qed.

(** ** neighbours of a node in a graph with one entry per pair *)
Lemma in_nbrs_adj (g : gr) h w : In w (nbrs g h) <-> adj g h w <> None.
Proof.
  rewrite in_nbrs. split.
  - intros (x & [H|H]).
    + apply (in_find_some _ h w x h w H). apply pair_eqb_refl.
    + apply (in_find_some _ w h x h w H). rewrite pair_eqb_swap. apply pair_eqb_refl.
  - intros H. destruct (adj g h w) as [x|] eqn:A; [|congruence]. apply find_some_in in A.
    destruct A as (a & b & Hin & P). exists x. apply pair_eqb_spec in P. destruct P as [[-> ->]|[-> ->]]; auto.
Qed.
Lemma NoDup_nbrs (g : gr) h : uniq_pairs (gedges g) = true -> NoDup (nbrs g h).
Proof.
  unfold nbrs. induction (gedges g) as [|[[a b] x] r IH]; intros U; [constructor|]. simpl in U.
  destruct (find_edge a b r) eqn:F; [discriminate|]. specialize (IH U). simpl flat_map.
  assert (forall w, pair_eqb a b h w = true ->
            ~ In w (flat_map (fun e : N * N * eatt => let '(a0, b0, _) := e in if N.eqb a0 h then [b0] else if N.eqb b0 h then [a0] else []) r)) as Hfresh.
  { intros w P Hin. apply in_flat_map in Hin. destruct Hin as ([[a0 b0] x0] & Hin & Hw).
    assert (pair_eqb a0 b0 h w = true) as P0.
    { apply pair_eqb_spec. destruct (N.eqb_spec a0 h) as [->|].
      - destruct Hw as [<-|[]]. left. auto.
      - destruct (N.eqb_spec b0 h) as [->|]; [|destruct Hw]. destruct Hw as [<-|[]]. right. auto. }
    apply (in_find_some r a0 b0 x0 a b Hin); [|exact F].
    rewrite (pair_eqb_trans _ _ _ _ a b P0). rewrite pair_eqb_sym. exact P. }
  destruct (N.eqb_spec a h) as [->|Ha].
  - simpl. constructor; [|exact IH]. apply Hfresh. apply pair_eqb_refl.
  - destruct (N.eqb_spec b h) as [->|Hb]; [|exact IH]. simpl. constructor; [|exact IH]. apply Hfresh.
    rewrite pair_eqb_swap. apply pair_eqb_refl.
Qed.
Lemma singleton_list {A} (l : list A) x : NoDup l -> (forall w, In w l <-> w = x) -> l = [x].
Proof.
  intros Hnd H. destruct l as [|y r]; [exfalso; apply (proj2 (H x) eq_refl)|].
  assert (y = x) as -> by (apply H; left; reflexivity). f_equal.
  destruct r as [|z r]; [reflexivity|]. exfalso. inversion Hnd as [|? ? Hnot _]; subst.
  assert (z = x) as -> by (apply H; right; left; reflexivity). apply Hnot. left. reflexivity.
Qed.
