(** C05 — [same_graph] (two writings of one graph: same ids, labels, adjacency) and [same_c06] (the same at the level of
    the matcher's graphs); the exhaustive search answers with everything or nothing ([find0_unfold]) and its SET of raw
    matches does not depend on the insertion order of the substrate's nodes and edges (the part of a SMILES rewriting
    that is not a renumbering); the run function computes what [t_variant] defines ([run_c05_eq]). Stdlib lists. *)
From Coq Require Import List ZArith Bool Lia Permutation.
From SK Require Import lib.Tok lib.LGraph lib.Mono.
From SK Require Import model.C03_Model model.C05_Model proof.C05_Proof proof.C05_Comp.
Import ListNotations.

Section WithThr.
Context {TH : Thr}.


Section HostOrder.
  Variables A B : Type.
  Variable pn hn hn' : list N.
  Variables pl hl hl' : N -> A.
  Variables pe he he' : N -> N -> option B.
  Variable nm : A -> A -> bool.
  Variable em : B -> B -> bool.
  Variable induced : bool.
  Hypothesis Hset : forall h, In h hn -> In h hn'.
  Hypothesis Hhl : forall h, hl' h = hl h.
  Hypothesis Hhe : forall h k, he' h k = he h k.

  Lemma ok_ext p h acc : ok pl hl' pe he' nm em induced p h acc = ok pl hl pe he nm em induced p h acc.
  Proof.
    unfold ok. rewrite Hhl. f_equal. induction acc as [|ph r IH]; simpl; [reflexivity|].
    rewrite IH. f_equal. unfold edge_ok. rewrite Hhe. reflexivity.
  Qed.

  Lemma valid_ext m : valid hn pl hl pe he nm em induced m -> valid hn' pl hl' pe he' nm em induced m.
  Proof.
    induction 1 as [|p h acc Hv IH Hin Hok]; [constructor|].
    constructor; [exact IH | apply Hset; exact Hin | rewrite ok_ext; exact Hok].
  Qed.

  Lemma monos_host_order m :
    In m (monos pn hn pl hl pe he nm em induced) -> In m (monos pn hn' pl hl' pe he' nm em induced).
  Proof.
    intros H. destruct (monos_only_such _ _ _ _ _ _ _ _ _ _ H) as (hs & Hl & E & Hv). subst m.
    apply monos_spec; [exact Hl|]. apply valid_ext. exact Hv.
  Qed.
End HostOrder.

(** two list graphs with the same node ids, labels and adjacency (insertion order and edge orientation free) *)
Definition same_graph {A B} (g g' : lgraph A B) : Prop :=
  (forall u, label g' u = label g u) /\ (forall u v, LGraph.adj g' u v = LGraph.adj g u v) /\
  (forall u, In u (node_ids g) <-> In u (node_ids g')) /\ NoDup (node_ids g) /\ NoDup (node_ids g').

(** two graphs built from two writings, with the ids of their writing and pointwise equal labels and adjacency *)
Lemma same_graph_image {A B A' B'} (g g' : lgraph A B) (h h' : lgraph A' B') :
  same_graph g g' -> node_ids h = node_ids g -> node_ids h' = node_ids g' ->
  (forall u, label h' u = label h u) -> (forall u v, LGraph.adj h' u v = LGraph.adj h u v) -> same_graph h h'.
Proof.
  intros (_ & _ & Ids & N1 & N2) E E' L Ad. rewrite <- E in N1. rewrite <- E' in N2.
  split; [exact L|]. split; [exact Ad|]. split; [|split; assumption]. intros u. rewrite E, E'. apply Ids.
Qed.

Lemma same_graph_sym {A B} (g g' : lgraph A B) : same_graph g g' -> same_graph g' g.
Proof.
  intros (H1 & H2 & H3 & H4 & H5). repeat split; auto; try (intros; symmetry; auto); apply H3.
Qed.

Lemma lab_host_c06 (g : hostg) u :
  C06_Model.lab (host_c06 g) u
  = match label g u with Some a => ([a_el a; zcode (a_ch a)], Z.to_N (a_hc a)) | None => ([], 0%N) end.
Proof.
  unfold C06_Model.lab, label, host_c06; simpl.
  induction (gnodes g) as [|[k a] r IH]; simpl; [reflexivity|]. destruct (N.eqb u k); [reflexivity | apply IH].
Qed.

Lemma adj_host_c06 (g : hostg) u v : LGraph.adj (host_c06 g) u v = option_map (fun o => [zcode o]) (LGraph.adj g u v).
Proof.
  unfold LGraph.adj, host_c06; simpl.
  induction (gedges g) as [|[[a b] o] r IH]; simpl; [reflexivity|].
  destruct ((N.eqb a u && N.eqb b v) || (N.eqb a v && N.eqb b u)); [reflexivity | apply IH].
Qed.

Lemma node_ids_host_c06 (g : hostg) : node_ids (host_c06 g) = node_ids g.
Proof. unfold node_ids, host_c06; simpl. rewrite map_map. reflexivity. Qed.

Lemma lab_pat_c06 (g : molg) u :
  C06_Model.lab (pat_c06 g) u
  = match label g u with Some a => ([m_el a; zcode (m_ch a)], Z.to_N (m_hc a)) | None => ([], 0%N) end.
Proof.
  unfold C06_Model.lab, label, pat_c06; simpl.
  induction (gnodes g) as [|[k a] r IH]; simpl; [reflexivity|]. destruct (N.eqb u k); [reflexivity | apply IH].
Qed.

Lemma adj_pat_c06 (g : molg) u v : LGraph.adj (pat_c06 g) u v = option_map (fun o => [zcode o]) (LGraph.adj g u v).
Proof.
  unfold LGraph.adj, pat_c06; simpl.
  induction (gedges g) as [|[[a b] o] r IH]; simpl; [reflexivity|].
  destruct ((N.eqb a u && N.eqb b v) || (N.eqb a v && N.eqb b u)); [reflexivity | apply IH].
Qed.

Lemma node_ids_pat_c06 (g : molg) : node_ids (pat_c06 g) = node_ids g.
Proof. unfold node_ids, pat_c06; simpl. rewrite map_map. reflexivity. Qed.

(** the exhaustive strategy without limits: everything, or nothing past the threshold *)
Lemma all_loop_0 thr it : forall acc n, (n <= thr)%N ->
  C06_Model.all_loop 0 thr it acc n = if (thr <? n + C06_Model.lenN it)%N then [] else rev acc ++ it.
Proof.
  unfold C06_Model.lenN. induction it as [|m it IH]; intros acc n Hn; simpl.
  - rewrite N.add_0_r. destruct (N.ltb_spec thr n); [lia|]. rewrite app_nil_r. reflexivity.
  - unfold C06_Model.capped. simpl.
    destruct (N.ltb_spec thr (N.succ n)) as [Hgt|Hle].
    + destruct (N.ltb_spec thr (n + N.pos (Pos.of_succ_nat (length it)))); [reflexivity | lia].
    + rewrite (IH (m :: acc) (N.succ n) Hle). simpl.
      replace (N.succ n + N.of_nat (length it))%N with (n + N.pos (Pos.of_succ_nat (length it)))%N by lia.
      destruct (thr <? n + N.pos (Pos.of_succ_nat (length it)))%N; [reflexivity|]. rewrite <- app_assoc. reflexivity.
Qed.

(** find_subgraph_mappings, exhaustive strategy, no result limit: everything or nothing *)
Lemma find0_unfold strict (H P : C06_Model.graph) :
  C06_Model.find (monos_on' H P) (C06_Model.Cfg 0 0 thr_val strict false) H P =
  let it := monos_on' H P (node_ids H) (node_ids P) in
  if (thr_val <? C06_Model.lenN it)%N then [] else it.
Proof.
  unfold C06_Model.find; simpl. unfold C06_Model.find_all.
  rewrite all_loop_0 by lia. simpl.
  set (it := monos_on' _ _ _ _). clearbody it. unfold mapping, C06_Model.mapping in *.
  destruct (thr_val <? C06_Model.lenN it)%N eqn:E;
    [match goal with |- context [if ?c then _ else _] => destruct c end; reflexivity|]. rewrite E. reflexivity.
Qed.

Lemma matches_all_unfold host pat :
  matches 0%N host pat =
  let it := monos_on' (host_c06 host) (pat_c06 pat) (node_ids (host_c06 host)) (node_ids (pat_c06 pat)) in
  if (thr_val <? C06_Model.lenN it)%N then [] else it.
Proof. apply find0_unfold. Qed.

Lemma nodup_same_length {X} (l l' : list X) : NoDup l -> NoDup l' -> (forall x, In x l <-> In x l') -> length l = length l'.
Proof. intros H H' E. apply Permutation_length. apply NoDup_Permutation; assumption. Qed.

(** two writings of one host at the level of the matcher's graphs *)
Definition same_c06 (H H' : C06_Model.graph) : Prop :=
  (forall u, C06_Model.lab H' u = C06_Model.lab H u) /\ (forall u v, LGraph.adj H' u v = LGraph.adj H u v) /\
  (forall u, In u (node_ids H) <-> In u (node_ids H')) /\ NoDup (node_ids H) /\ NoDup (node_ids H').

Lemma same_c06_sym H H' : same_c06 H H' -> same_c06 H' H.
Proof. intros (A & B & C & D & E). repeat split; auto; try (intros; symmetry; auto); apply C. Qed.

Lemma same_graph_c06 (host host' : hostg) : same_graph host host' -> same_c06 (host_c06 host) (host_c06 host').
Proof.
  intros (H1 & H2 & H3 & H4 & H5). repeat split.
  - intros u. rewrite !lab_host_c06, H1. reflexivity.
  - intros u v. rewrite !adj_host_c06, H2. reflexivity.
  - rewrite !node_ids_host_c06. apply H3.
  - rewrite !node_ids_host_c06. apply H3.
  - rewrite node_ids_host_c06. exact H4.
  - rewrite node_ids_host_c06. exact H5.
Qed.

Lemma same_graph_c06_pat (pat pat' : molg) : same_graph pat pat' -> same_c06 (pat_c06 pat) (pat_c06 pat').
Proof.
  intros (H1 & H2 & H3 & H4 & H5). repeat split.
  - intros u. rewrite !lab_pat_c06, H1. reflexivity.
  - intros u v. rewrite !adj_pat_c06, H2. reflexivity.
  - rewrite !node_ids_pat_c06. apply H3.
  - rewrite !node_ids_pat_c06. apply H3.
  - rewrite node_ids_pat_c06. exact H4.
  - rewrite node_ids_pat_c06. exact H5.
Qed.

Lemma monos_on_c06_order (H H' P : C06_Model.graph) : same_c06 H H' -> forall m,
  In m (C06_Model.monos_on H P (node_ids H) (node_ids P)) -> In m (C06_Model.monos_on H' P (node_ids H') (node_ids P)).
Proof. intros (A & B & C & _ & _) m. unfold C06_Model.monos_on. apply monos_host_order; [apply C | exact A | exact B]. Qed.

Lemma monos_on_c06_count (H H' P : C06_Model.graph) : same_c06 H H' ->
  C06_Model.lenN (C06_Model.monos_on H P (node_ids H) (node_ids P)) = C06_Model.lenN (C06_Model.monos_on H' P (node_ids H') (node_ids P)).
Proof.
  intros HS. unfold C06_Model.lenN. f_equal. apply nodup_same_length.
  - apply monos_nodup. apply HS.
  - apply monos_nodup. apply HS.
  - intros m. split; apply monos_on_c06_order; [exact HS | apply same_c06_sym; exact HS].
Qed.

Lemma monos_on_count_host_order (host host' : hostg) (pat : molg) :
  same_graph host host' ->
  C06_Model.lenN (C06_Model.monos_on (host_c06 host) (pat_c06 pat) (node_ids (host_c06 host)) (node_ids (pat_c06 pat)))
  = C06_Model.lenN (C06_Model.monos_on (host_c06 host') (pat_c06 pat) (node_ids (host_c06 host')) (node_ids (pat_c06 pat))).
Proof. intros HS. apply monos_on_c06_count, same_graph_c06, HS. Qed.

Lemma find0_host_order strict (H H' P : C06_Model.graph) : same_c06 H H' -> forall m,
  In m (C06_Model.find (monos_on' H P) (C06_Model.Cfg 0 0 thr_val strict false) H P) <->
  In m (C06_Model.find (monos_on' H' P) (C06_Model.Cfg 0 0 thr_val strict false) H' P).
Proof.
  intros HS m. pose proof (monos_on_c06_count H H' P HS) as Hlen.
  rewrite !find0_unfold. cbv zeta. rewrite !monos_on'_eq. unfold mapping, C06_Model.mapping in *. rewrite <- Hlen.
  destruct (thr_val <? _)%N; [tauto|].
  split; apply monos_on_c06_order; [exact HS | apply same_c06_sym; exact HS].
Qed.

Lemma matches_all_host_order (host host' : hostg) (pat : molg) :
  same_graph host host' -> forall m, In m (matches 0%N host pat) <-> In m (matches 0%N host' pat).
Proof. intros HS. apply find0_host_order, same_graph_c06, HS. Qed.

(** renumbering and reordering together: the transported match of every raw match is a raw match of any writing of
    the renumbered substrate (exhaustive strategy) *)
Lemma matches_all_rewriting sg pi (Hs : inj sg) (Hp : inj pi) (host host' : hostg) (pat : molg) :
  same_graph (relabel pi host) host' ->
  forall m, In m (matches 0%N host pat) -> In (mv sg pi m) (matches 0%N host' (relabel sg pat)).
Proof.
  intros HS m Hin. apply (proj1 (matches_all_host_order (relabel pi host) host' (relabel sg pat) HS (mv sg pi m))).
  rewrite matches_relabel by assumption. apply in_map. exact Hin.
Qed.

(** ** the run function shares the exhaustive enumeration between its observables; it computes what [t_variant] defines *)
Lemma raw_shared_eq host p strat : raw_shared (all_enum host p) strat host p = raw_of strat host p.
Proof.
  unfold raw_shared. destruct (N.eqb_spec strat 0) as [->|Hne]; [|reflexivity].
  unfold raw_of, raw_of_enum, all_enum. rewrite matches_all_unfold. reflexivity.
Qed.

Lemma t_variant_shared_eq inv imp ex strats v : t_variant_shared inv imp ex strats v = t_variant inv imp ex strats v.
Proof.
  unfold t_variant_shared, t_variant. destruct (prepare inv imp (snd v)) as [p|]; [|reflexivity].
  cbv zeta. change (side_okb_c_with (all_enum (fst v) p) (fst v) p) with (side_okb_c (fst v) p).
  assert (E : tlist (fun s : N => t_strategy_raw ex (fst v) p s (raw_shared (all_enum (fst v) p) s (fst v) p)) strats
              = tlist (t_strategy ex (fst v) p) strats).
  { unfold tlist. f_equal. apply map_ext. intros s. unfold t_strategy. rewrite raw_shared_eq. reflexivity. }
  rewrite E. reflexivity.
Qed.

Lemma run_c05_eq inv imp ex strats vs : run_c05 inv imp ex strats vs = tlist (t_variant inv imp ex strats) vs.
Proof. unfold run_c05, tlist. f_equal. apply map_ext. intros v. apply t_variant_shared_eq. Qed.

End WithThr.
