(** C10 — proofs: the FULL export (core=False).  For an atom-balanced pair of molecule graphs the whole ITS is in
    the domain of the GML round trip, the reactant / product graphs themselves carry its two sides, and so the rule written
    from the reaction string (smart_to_gml core=False: sides = the molecule graphs) and the rule written from the ITS
    (its_to_gml core=False: sides = its_decompose) read back to the same ITS — the ITS itself. *)
From Coq Require Import List NArith ZArith Bool Lia.
From SK Require Import lib.LGraph lib.StrJoin model.C10_Model proof.C10_Proof proof.C10_Views proof.C10_Build
  proof.C10_Copy proof.C10_GmlRead proof.C10_GmlWrite proof.C10_Centre proof.C10_Routes proof.C10_Routes2 proof.C10_Smart.
Import ListNotations.
Local Open Scope Z_scope.

Section Full.
Variables G H : gr.
Hypothesis HG : mol_ok G = true.
Hypothesis HH : mol_ok H = true.
Hypothesis Hbal : balanced G H = true.
Variable eo : list (N * N).
Hypothesis Heo : forall u v, pair_in u v eo = has_edge G u v || has_edge H u v.
Hypothesis HsG : forall u v x, adj G u v = Some x -> e_std x = None.
Hypothesis HsH : forall u v x, adj H u v = Some x -> e_std x = None.
Let I := its_construct G H eo.
Let WG := mol_ok_gwf G HG.
Let WH := mol_ok_gwf H HH.

Lemma bal_sym : balanced H G = true -> True. Proof. auto. Qed.

Lemma I_label_G n a : label G n = Some a ->
  exists b a', label H n = Some a' /\ label I n = Some b /\
               a_tgh b = Some (tg_of G n, tg_of H n) /\ a_el b = Some (tg_el (tg_of G n)) /\ a_ch b = Some (tg_ch (tg_of G n)).
Proof.
  intros La. destruct (bal_GH G H Hbal n a La) as (a' & Lb & _).
  pose proof (I_label G H HG HH Hbal eo Heo n) as LI. fold I in LI. rewrite La in LI.
  assert (exists b0, assoc n (its_nodes G H) = Some b0) as [b0 Eb] by (rewrite (its_nodes_label G H Hbal n), La; eauto).
  rewrite Eb in LI. simpl in LI. exists (its_node G H n b0), a'. split; [exact Lb|split; [exact LI|]].
  unfold its_node. destruct (tg_of G n) as [[[e ar] h] c]. simpl. auto.
Qed.
Lemma I_label_none n : label G n = None -> label I n = None.
Proof. intros L. pose proof (I_label G H HG HH Hbal eo Heo n) as LI. fold I in LI. rewrite L in LI. exact LI. Qed.

Lemma tg_of_mol X n a : mol_ok X = true -> label X n = Some a ->
  exists e q, a_el a = Some e /\ a_ch a = Some q /\ elem_str e /\ tg_el (tg_of X n) = e /\ tg_ch (tg_of X n) = q.
Proof.
  intros HX L. destruct (mol_ok_node X n a HX L) as (e & q & E1 & E2 & E3). exists e, q. unfold tg_of. rewrite L, E1, E2. simpl. auto.
Qed.

Theorem full_IOK : IOK I.
Proof.
  split; [apply (I_gwf G H HG HH eo)|split].
  - intros n b L. destruct (label G n) as [a|] eqn:La; [|rewrite (I_label_none n La) in L; discriminate].
    destruct (I_label_G n a La) as (b' & a' & Lb & LI & T & E1 & E2). rewrite LI in L. injection L as <-.
    destruct (tg_of_mol G n a HG La) as (e & q & Ea & Eq & Es & Te & Tq).
    destruct (tg_of_mol H n a' HH Lb) as (e' & q' & Ea' & Eq' & _ & Te' & Tq').
    destruct (bal_GH G H Hbal n a La) as (a2 & Lb2 & Eel). rewrite Lb in Lb2. injection Lb2 as <-. rewrite Ea, Ea' in Eel. simpl in Eel.
    destruct (tg_of G n) as [[[e1 ar1] h1] q1]. destruct (tg_of H n) as [[[e2 ar2] h2] q2].
    simpl in Te, Tq, Te', Tq', E1, E2. assert (e2 = e1) as -> by congruence. rewrite <- Te in Es.
    exists e1, ar1, h1, q1, ar2, h2, q2. auto.
  - intros u v x A. pose proof (I_adj G H eo Heo u v) as AI. fold I in AI. rewrite A in AI.
    destruct (has_edge G u v || has_edge H u v) eqn:E; [|discriminate]. unfold its_d in AI. injection AI as ->.
    exists (scal_order G u v), (scal_order H u v).
    destruct (adj_ends I u v _ (I_gwf G H HG HH eo) A) as [Hu Hv].
    destruct (mol_pair_orders G H u v HG HH E) as (O1 & O2 & Hne). repeat split; auto.
Qed.

(** the molecule graphs carry the two sides of their ITS *)
Lemma dd_I j u v : dd I j u v = (let X := if j then H else G in
                                 match adj X u v with Some y => Some (EA (e_ord y) None) | None => None end).
Proof.
  cbv zeta. unfold dd. pose proof (I_adj G H eo Heo u v) as AI. fold I in AI. rewrite AI.
  destruct (has_edge G u v || has_edge H u v) eqn:E.
  - unfold its_d, ord_of. simpl. unfold scal_order.
    destruct j.
    + destruct (adj H u v) as [y|] eqn:A; [|reflexivity]. destruct (mol_ok_edge H u v y HH A) as (o & Eo & Ho). rewrite Eo.
      destruct Ho as [->|[->|[->| ->]]]; reflexivity.
    + destruct (adj G u v) as [y|] eqn:A; [|reflexivity]. destruct (mol_ok_edge G u v y HG A) as (o & Eo & Ho). rewrite Eo.
      destruct Ho as [->|[->|[->| ->]]]; reflexivity.
  - apply orb_false_iff in E. unfold has_edge in E. destruct E as [E1 E2].
    destruct j; [destruct (adj H u v)|destruct (adj G u v)]; try discriminate; reflexivity.
Qed.

Lemma mol_side (j : bool) : side_like I j (if j then H else G).
Proof.
  split.
  - destruct j; assumption.
  - intros n L. destruct (label G n) as [a|] eqn:La.
    + destruct (I_label_G n a La) as (b & _ & _ & LI & _). congruence.
    + destruct j; [|exact La]. apply has_node_false, not_true_is_false. intros Hn. apply (bal_HG G H Hbal), has_node_label in Hn.
      destruct Hn; congruence.
  - intros n b L. destruct (label G n) as [a|] eqn:La; [|rewrite (I_label_none n La) in L; discriminate].
    destruct (I_label_G n a La) as (b' & a' & Lb & LI & T & _). rewrite LI in L. injection L as <-.
    destruct j; unfold T_of, tG_of, tH_of; rewrite T.
    + destruct (tg_of_mol H n a' HH Lb) as (e & q & Ea & Eq & _ & Te & Tq). exists a'. rewrite Te, Tq. auto.
    + destruct (tg_of_mol G n a HG La) as (e & q & Ea & Eq & _ & Te & Tq). exists a. rewrite Te, Tq. auto.
  - intros u v. rewrite dd_I. cbv zeta. destruct j.
    + destruct (adj H u v) as [y|] eqn:A; [|reflexivity]. rewrite <- (HsH u v y A). destruct y; reflexivity.
    + destruct (adj G u v) as [y|] eqn:A; [|reflexivity]. rewrite <- (HsG u v y A). destruct y; reflexivity.
Qed.

Theorem two_routes_full :
  let A := gml_to_its (smart_to_gml G H eo false false false) in
  let B := gml_to_its (its_to_gml I false false false) in
  (forall n, has_node A n = has_node I n /\ has_node B n = has_node I n) /\
  (forall n a, label I n = Some a ->
     let x := Some (gml_node n (tg_el (tG_of a)) (tg_ch (tG_of a)) (tg_ch (tH_of a))) in label A n = x /\ label B n = x) /\
  (forall u v, adj A u v = adj I u v /\ adj B u v = adj I u v).
Proof.
  intros A B.
  destruct (gml_pipeline I G H full_IOK (mol_side false) (mol_side true)) as (A1 & A2 & A3).
  destruct (gml_roundtrip_iok I full_IOK) as (B1 & B2 & B3). cbv zeta in *.
  assert (A = snd (gml_to_nx [(SLeft, side_entries G (find_changed G H)); (SContext, context_entries I (find_changed G H) false);
                               (SRight, side_entries H (find_changed G H))])) as EA by reflexivity.
  rewrite <- EA in A1, A2, A3. fold B in B1, B2, B3.
  split; [|split].
  - intros n. auto.
  - intros n a L. cbv zeta. auto.
  - intros u v. auto.
Qed.
End Full.

Lemma std_free_adj g u v x : std_free g = true -> adj g u v = Some x -> e_std x = None.
Proof.
  unfold std_free. rewrite forallb_forall. intros H A. apply find_some_in in A. destruct A as (a & b & Hin & _).
  specialize (H _ Hin). simpl in H. destruct (e_std x); [discriminate|reflexivity].
Qed.

Theorem two_routes_full_b (r p : gr) (eo : list (N * N)) :
  mol_ok r = true -> mol_ok p = true -> balanced r p = true -> eo_covers r p eo = true ->
  std_free r = true -> std_free p = true ->
  let I := its_construct r p eo in
  let A := gml_to_its (smart_to_gml r p eo false false false) in
  let B := gml_to_its (its_to_gml I false false false) in
  (forall n, has_node A n = has_node I n /\ has_node B n = has_node I n) /\
  (forall n a, label I n = Some a ->
     let x := Some (gml_node n (tg_el (tG_of a)) (tg_ch (tG_of a)) (tg_ch (tH_of a))) in label A n = x /\ label B n = x) /\
  (forall u v, adj A u v = adj I u v /\ adj B u v = adj I u v).
Proof.
  intros Hr Hp Hb He Sr Sp. apply (two_routes_full r p Hr Hp Hb eo (eo_covers_spec r p eo He)).
  - intros u v x. apply std_free_adj. exact Sr.
  - intros u v x. apply std_free_adj. exact Sp.
Qed.

Example two_routes_full_ex :
  std_free ex_r = true /\ std_free ex_p = true /\
  node_ids (gml_to_its (smart_to_gml ex_r ex_p (union_pairs ex_r ex_p) false false false)) <> [] /\
  adj (gml_to_its (smart_to_gml ex_r ex_p (union_pairs ex_r ex_p) false false false)) 3%N 4%N
  = adj (its_construct ex_r ex_p (union_pairs ex_r ex_p)) 3%N 4%N /\
  adj (its_construct ex_r ex_p (union_pairs ex_r ex_p)) 3%N 4%N = Some (EA (Some (OP 2 2)) (Some 0)).
Proof. vm_compute. repeat split. discriminate. Qed.
