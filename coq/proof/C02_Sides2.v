(** C02 — the centre stated on the two sides, for EVERY balance_its (the base graph only decides the order of the ITS
    nodes and which atom_map a shared atom inherits; the bonds and the well-formedness do not depend on it). *)
From Coq Require Import List NArith ZArith Bool.
From SK Require Import lib.LGraph lib.C01_GraphLemmas model.C01_Model model.C02_Model proof.C01_Proof proof.C02_Proof
                       proof.C02_Generic proof.C02_Ctx proof.C02_Sides proof.C02_Wfb.
Import ListNotations.
Local Open Scope Z_scope.

Lemma nodup_app_disj (l1 l2 : list N) : NoDup l1 -> NoDup l2 -> (forall x, In x l1 -> ~ In x l2) -> NoDup (l1 ++ l2).
Proof.
  induction l1 as [|a l1 IH]; simpl; intros H1 H2 Hd. { exact H2. } inversion H1 as [|? ? Hna Hnd]; subst. constructor.
  - rewrite in_app_iff. intros [I|I]; [exact (Hna I)|exact (Hd a (or_introl eq_refl) I)].
  - apply IH; [exact Hnd|exact H2|]. intros x I. apply Hd. right. exact I.
Qed.

Lemma nodup_map_filter {V} (p : N * V -> bool) (l : list (N * V)) : NoDup (map fst l) -> NoDup (map fst (filter p l)).
Proof.
  induction l as [|[k v] l IH]; simpl; intros H. { constructor. } inversion H; subst.
  destruct (p (k, v)); simpl; [constructor|]; auto.
  intros I. apply in_map_iff in I. destruct I as ([k' v'] & E & I). simpl in E. subst k'. apply filter_In in I. destruct I as [I _].
  apply H2. apply in_map_iff. exists (k, v'). auto.
Qed.

(** node ids of the construction for either base choice *)
Lemma node_ids_construct_ab ia bal G H n :
  In n (node_ids (its_construct_ab ia bal G H)) <-> In n (node_ids G) \/ In n (node_ids H).
Proof.
  unfold its_construct_ab, node_ids. simpl. rewrite map_map. simpl.
  set (gb := if bal then (length (gnodes G) <=? length (gnodes H))%nat else base_is_G G H).
  change (map (fun x : N * gnode => fst x)) with (@map (N * gnode) N fst). rewrite map_app, in_app_iff.
  assert (forall (B O : mgraph), In n (map fst (filter (fun p => negb (has_node B (fst p))) (gnodes O))) <->
                                 In n (node_ids O) /\ ~ In n (node_ids B)) as F.
  { intros B O. rewrite in_map_iff. split.
    - intros ([k v] & <- & I). apply filter_In in I. destruct I as [I P]. simpl in *. split.
      + apply in_map_iff. exists (k, v). auto.
      + intros J. apply has_node_spec in J. rewrite J in P. discriminate.
    - intros [I J]. apply in_map_iff in I. destruct I as ([k v] & <- & I). exists (k, v). split; [reflexivity|].
      apply filter_In. split; [exact I|]. simpl. destruct (has_node B k) eqn:Hn; [|reflexivity].
      apply has_node_spec in Hn. contradiction. }
  destruct gb; rewrite F; fold (node_ids G); fold (node_ids H).
  - destruct (In_dec N.eq_dec n (node_ids G)); tauto.
  - destruct (In_dec N.eq_dec n (node_ids H)); tauto.
Qed.

Lemma wf_construct_ab ia bal G H : wf G -> wf H -> wf (its_construct_ab ia bal G H).
Proof.
  intros WG WH. pose proof (wf_construct_ab_false ia G H WG WH) as W0. apply wf_intro.
  - unfold its_construct_ab, node_ids. simpl. rewrite map_map. simpl.
    change (map (fun x : N * gnode => fst x)) with (@map (N * gnode) N fst). rewrite map_app.
    destruct (if bal then (length (gnodes G) <=? length (gnodes H))%nat else base_is_G G H).
    + apply nodup_app_disj; [exact (proj1 WG)|apply nodup_map_filter; exact (proj1 WH)|].
      intros x I J. apply in_map_iff in J. destruct J as ([k v] & <- & J). apply filter_In in J. destruct J as [_ P]. simpl in *.
      apply (has_node_spec G) in I. rewrite I in P. discriminate.
    + apply nodup_app_disj; [exact (proj1 WH)|apply nodup_map_filter; exact (proj1 WG)|].
      intros x I J. apply in_map_iff in J. destruct J as ([k v] & <- & J). apply filter_In in J. destruct J as [_ P]. simpl in *.
      apply (has_node_spec H) in I. rewrite I in P. discriminate.
  - intros a b x I.
    assert (gedges (its_construct_ab ia bal G H) = gedges (its_construct_ab ia false G H)) as E by reflexivity.
    rewrite E in I. destruct (wf_edge_nodes W0 I) as (Ia & Ib & Hab).
    rewrite !node_ids_construct_ab in *. auto.
  - exact (wf_simple W0).
Qed.

Theorem centre_vs_sides_all ia bal (G H : mgraph) : wf G -> wf H ->
  let I := its_construct_ab ia bal G H in
  forall u v,
    (exists e, adj (get_rc I) u v = Some e) <->
    (adj G u v <> None \/ adj H u v <> None) /\
    ((if ia then 2 <= Z.abs (order_in G u v - order_in H u v) else order_in G u v <> order_in H u v) \/
     (is_h I u = true /\ is_h I v = true)).
Proof.
  intros WG WH I u v. subst I.
  pose proof (wf_construct_ab ia bal G H WG WH) as W.
  destruct (union G H WG WH) as (_ & _ & Hadj & _ & _).
  assert (forall e, adj (its_construct_ab ia bal G H) u v = Some e <->
                    (adj G u v <> None \/ adj H u v <> None) /\
                    e = IE (order_in G u v) (order_in H u v) (std_ab ia (order_in G u v) (order_in H u v))) as Ha.
  { intros e. rewrite adj_construct_ab. destruct (adj (its_construct G H) u v) as [[a b s]|] eqn:A; simpl.
    - apply Hadj in A. destruct A as (-> & -> & P & ->). unfold restd. simpl. split.
      + intros [= <-]. auto.
      + intros [_ ->]. reflexivity.
    - split; [discriminate|]. intros [P _]. exfalso.
      assert (adj (its_construct G H) u v = Some (IE (order_in G u v) (order_in H u v) (order_in G u v - order_in H u v))) as C
          by (apply Hadj; auto).
      congruence. }
  assert (forall e, adj (get_rc (its_construct_ab ia bal G H)) u v = Some e <->
                    adj (its_construct_ab ia bal G H) u v = Some e /\
                    ((if ia then 2 <= Z.abs (e_G e - e_H e) else e_G e <> e_H e) \/
                     (is_h (its_construct_ab ia bal G H) u = true /\ is_h (its_construct_ab ia bal G H) v = true))) as Hrc
    by (destruct ia; [apply (rc_edges_ia _ W), its_construct_ia_consistent|apply (rc_edges _ W), its_construct_noia_consistent]).
  split.
  - intros (e & A). apply Hrc in A. destruct A as [A Hd]. apply Ha in A. destruct A as [P ->]. simpl in Hd. auto.
  - intros [P Hd]. eexists. apply Hrc. split; [apply Ha; split; [exact P|reflexivity]|]. simpl. exact Hd.
Qed.

(** non-vacuity: sides with different atom counts, balance_its=True picks the smaller graph as base *)
Definition ub_G : mgraph := LG [(1%N, GN 70%N false 0 0 None 1); (2%N, GN 82%N false 0 0 None 2)] [(1%N, 2%N, 4)].
Definition ub_H : mgraph := LG [(1%N, GN 70%N false 1 0 None 1); (2%N, GN 82%N false 1 0 None 2); (3%N, GN 2%N false 0 0 None 3)]
                               [(1%N, 2%N, 2); (2%N, 3%N, 2)].
Example C02_sides_all_nonvacuous :
  wf ub_G /\ wf ub_H /\ length (gnodes ub_G) <> length (gnodes ub_H) /\
  map fst (gnodes (get_rc (its_construct_ab false true ub_G ub_H))) = [1; 2; 3]%N /\
  length (gedges (get_rc (its_construct_ab false true ub_G ub_H))) = 2%nat.
Proof.
  split; [|split; [|vm_compute; repeat split; discriminate]].
  - apply wfb_sound. reflexivity.
  - apply wfb_sound. reflexivity.
Qed.
