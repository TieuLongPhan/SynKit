(** C04 — the property theorems (statements in props/C04.v): for a balanced pair written without hydrogen atoms
    (implicit-hydrogen mode), the reaction's own template -- full ITS or centre, as it is or inverted -- makes the
    identity a valid match on the own substrate, and gluing along it gives the reaction again. *)
From Coq Require Import List NArith ZArith Bool.
From SK Require Import lib.LGraph model.C03_Model model.C04_Model proof.C03_Proof proof.C03_Glue proof.C03_Backward proof.C04_Glue proof.C04_Template
                       proof.C04_Any.
Import ListNotations.
Local Open Scope Z_scope.

Lemma h_to_implicit_host_noH A : no_explicit_H A = true -> h_to_implicit_host A = A.
Proof.
  intros NH. unfold h_to_implicit_host.
  assert (E : h_nodes_h A = []).
  { unfold h_nodes_h. rewrite (filter_nil (fun p : N * nattr => N.eqb (a_el (snd p)) EL_H) (gnodes A)); [reflexivity|].
    intros p I. apply negb_true_iff. exact (forallb_elim _ _ _ NH I). }
  rewrite E. reflexivity.
Qed.

Lemma pick_sides (invert : bool) (G H : hostg) n x y : label G n = Some x -> label H n = Some y ->
  a_hc x <> a_hc y \/ a_ch x <> a_ch y ->
  exists xa yb, label (if invert then H else G) n = Some xa /\ label (if invert then G else H) n = Some yb /\
                (a_hc xa <> a_hc yb \/ a_ch xa <> a_ch yb).
Proof.
  intros Ex Ey Hd. destruct invert; [exists y, x|exists x, y]; repeat split; auto.
  destruct Hd; [left|right]; congruence.
Qed.

(** the reaction's own template describes it when no bond joins two hydrogen atoms (then the centre is the changed bonds
    with their end atoms); the centre only if it carries every change *)
Lemma template_describes_hh (core invert : bool) (G H : hostg) : pair_wfb G H = true ->
  (forall u v x, In (u, v, x) (gedges (its_construct G H)) -> is_hh (its_construct G H) u v = false) ->
  (core = true -> centre_carries (its_construct G H) = true) ->
  describes (if invert then H else G) (if invert then G else H) (template core invert G H).
Proof.
  intros W NHH CC. destruct (pair_wfb_sound G H W) as (PW & CG & CH).
  pose proof (rc_describes G H PW CG CH NHH) as D1. pose proof (construct_describes G H PW CG CH) as D2.
  pose proof (rc_edges_pos G H PW CG CH NHH) as P1. pose proof (T0_edges_pos G H PW) as P2.
  unfold template. destruct invert, core.
  - apply invert_describes; [exact (pw_A _ _ PW)|exact (pw_B _ _ PW)|exact (D1 (CC eq_refl))|exact P1].
  - apply invert_describes; [exact (pw_A _ _ PW)|exact (pw_B _ _ PW)|exact D2|exact P2].
  - exact (D1 (CC eq_refl)).
  - exact D2.
Qed.

Section Final.
  Variables (core invert : bool) (G H : hostg).
  Hypothesis W : pair_wfb G H = true.
  Hypothesis NH : no_explicit_H G = true.
  Let A := if invert then H else G.
  Let B := if invert then G else H.
  Let T0 := its_construct G H.
  Let tpl := template core invert G H.
  Let PW : pair_wf G H := proj1 (pair_wfb_sound G H W).
  Let CG : closed G := proj1 (proj2 (pair_wfb_sound G H W)).
  Let CH : closed H := proj2 (proj2 (pair_wfb_sound G H W)).
  Let NHH : forall u v x, In (u, v, x) (gedges (its_construct G H)) -> is_hh (its_construct G H) u v = false.
  Proof. exact (noH_noHH G H PW NH). Qed.

  Lemma NH_H : no_explicit_H H = true.
  Proof.
    unfold no_explicit_H. apply forallb_forall. intros [n y] I. simpl.
    assert (Ey : label H n = Some y) by (apply label_in; [exact (wf_host_nodup H (pw_B _ _ PW))|exact I]).
    destruct (in_ids_label G n (proj2 (pw_ids _ _ PW n) (label_some_in H n y Ey))) as [x Ex].
    rewrite <- (pw_el _ _ PW n x y Ex Ey). apply negb_true_iff. exact (G_not_H G NH n x Ex).
  Qed.
  Lemma NH_A : no_explicit_H A = true.
  Proof. unfold A. destruct invert; [exact NH_H|exact NH]. Qed.

  Lemma mode_implicit : mode_E G H = false.
  Proof. unfold mode_E. exact (rc_no_explicit G H PW CG CH NH). Qed.
  Lemma consistent : consistent_H (its_construct G H) = true.
  Proof. unfold consistent_H. rewrite (rc_no_explicit G H PW CG CH NH). reflexivity. Qed.

  Lemma template_fits : fits A B tpl.
  Proof.
    pose proof (rc_fits G H PW CG CH NHH) as F1. pose proof (construct_fits G H PW CG CH) as F2.
    unfold A, B, tpl, template. destruct invert, core.
    - apply invert_fits; [exact (pw_A _ _ PW)|exact (pw_B _ _ PW)|exact F1].
    - apply invert_fits; [exact (pw_A _ _ PW)|exact (pw_B _ _ PW)|exact F2].
    - exact F1.
    - exact F2.
  Qed.

  Lemma template_describes : (core = true -> centre_carries (its_construct G H) = true) -> describes A B tpl.
  Proof. exact (template_describes_hh core invert G H W NHH). Qed.

  Lemma pair_AB : pair_wf A B.
  Proof. unfold A, B. destruct invert; [apply pair_wf_sym|]; exact PW. Qed.

  (** the rule the reactor builds: the template itself with its two sides *)
  Lemma rule_is_template : rule_of core invert G H = Some (tpl, dec_side iG eG tpl, dec_side iH eH tpl).
  Proof.
    unfold rule_of. rewrite mode_implicit. fold tpl.
    rewrite (synrule_implicit tpl (fits_nodupb A B tpl template_fits)). reflexivity.
  Qed.

  (** the matcher's pattern is the reactant side as it is (no hydrogen atom to fold) *)
  Lemma left_no_H u : is_H_m (dec_side iG eG tpl) u = false.
  Proof.
    unfold is_H_m. rewrite dec_label. destruct (label tpl u) as [a|] eqn:E; [|reflexivity]. simpl.
    destruct (f_nodes _ _ _ template_fits u a (assoc_in u (gnodes tpl) E)) as (x & y & Ex & _ & E1 & _).
    rewrite E1. exact (G_not_H A NH_A u x Ex).
  Qed.
  Lemma own_no_XH : has_XH (dec_side iG eG tpl) = false.
  Proof.
    unfold has_XH. destruct (existsb _ (gedges (dec_side iG eG tpl))) eqn:E; [|reflexivity]. exfalso.
    apply existsb_exists in E. destruct E as ([[u v] o] & _ & Hx). rewrite !left_no_H in Hx. discriminate.
  Qed.
  Lemma pattern_is_left : pattern_of (dec_side iG eG tpl) = dec_side iG eG tpl.
  Proof. unfold pattern_of. rewrite own_no_XH. reflexivity. Qed.
  Lemma substrate_is_A : substrate invert G H = A.
  Proof. unfold substrate. fold A. apply h_to_implicit_host_noH. exact NH_A. Qed.
  Lemma pattern_ids : node_ids (dec_side iG eG tpl) = node_ids tpl.
  Proof. unfold node_ids. rewrite dec_gnodes, map_map. reflexivity. Qed.

  Theorem identity_match :
    exists rc l r, rule_of core invert G H = Some (rc, l, r) /\
      match_okb (substrate invert G H) (pattern_of l) (id_map (node_ids (pattern_of l))) = true /\
      match_rcb (substrate invert G H) rc (id_map (node_ids (pattern_of l))) = true.
  Proof.
    exists tpl, (dec_side iG eG tpl), (dec_side iH eH tpl). split; [exact rule_is_template|].
    rewrite pattern_is_left, pattern_ids, substrate_is_A. split.
    - exact (fits_match_pattern A B tpl template_fits).
    - exact (fits_match_rc A B tpl template_fits).
  Qed.

  (** in implicit mode nothing follows the gluing *)
  Lemma regenerate_is_glue T : glue A tpl (id_map (node_ids tpl)) = Some T -> regenerate core invert G H = Some T.
  Proof.
    intros ET. unfold regenerate. rewrite rule_is_template, mode_implicit, pattern_is_left, pattern_ids, substrate_is_A. simpl.
    rewrite ET. reflexivity.
  Qed.
  Lemma in_its_list (kept : list mapping) m T : In m kept -> glue A tpl m = Some T -> In (Some T) (its_list core invert G H kept).
  Proof.
    intros I ET. unfold its_list. rewrite rule_is_template, mode_implicit, substrate_is_A.
    apply in_map_iff. exists m. split; [rewrite ET; reflexivity|exact I].
  Qed.

  Theorem identity_glue : (core = true -> centre_carries (its_construct G H) = true) ->
    exists T, regenerate core invert G H = Some T /\ regen_exact T A B = true.
  Proof.
    intros CC. destruct (identity_regen A B tpl pair_AB (template_describes CC)) as (_ & T & ET & ER). exists T.
    split; [exact (regenerate_is_glue T ET)|exact ER].
  Qed.

  (** the converse for the centre: if some atom outside the centre changes hydrogen count or charge, the centre
      template glued along the identity does NOT give the reaction back *)
  Theorem centre_exact : core = true -> centre_carries (its_construct G H) = false ->
    exists T, regenerate core invert G H = Some T /\ regen_exact T A B = false.
  Proof.
    intros Ec CC.
    destruct (fits_glue_some A B tpl template_fits pair_AB) as [T ET]. exists T. split; [exact (regenerate_is_glue T ET)|].
    unfold centre_carries in CC. destruct (outside_change (its_construct G H) (get_rc (its_construct G H))) as [|n0 r0] eqn:Eo; [discriminate|].
    assert (I0 : In n0 (outside_change (its_construct G H) (get_rc (its_construct G H)))) by (rewrite Eo; left; reflexivity).
    unfold outside_change in I0. apply in_map_iff in I0. destruct I0 as ([n a] & En & I0). simpl in En; subst n0.
    apply filter_In in I0. destruct I0 as [I0 P]. simpl in P. apply andb_prop in P. destruct P as [P1 P2].
    destruct (construct_node G H PW n a I0) as [-> In_].
    destruct (in_ids_label G n In_) as [x Ex]. destruct (in_ids_label H n (proj1 (pw_ids _ _ PW n) In_)) as [y Ey].
    unfold its_node, side_tuple in P2; simpl in P2. rewrite Ex, Ey in P2.
    assert (Hd : a_hc x <> a_hc y \/ a_ch x <> a_ch y).
    { apply orb_prop in P2. destruct P2 as [P2|P2]; apply negb_true_iff in P2; apply Z.eqb_neq in P2; auto. }
    assert (NI : ~ In n (node_ids tpl)).
    { assert (NR : ~ In n (node_ids (get_rc (its_construct G H)))).
      { apply negb_true_iff in P1. unfold has_node in P1.
        destruct (label (get_rc (its_construct G H)) n) eqn:El; [discriminate|]. exact (label_none _ n El). }
      unfold tpl, template. rewrite Ec. destruct invert; [rewrite invert_ids|]; exact NR. }
    destruct (pick_sides invert G H n x y Ex Ey Hd) as (xa & yb & Exa & Eyb & Hd').
    rewrite <- (id_map_snd (node_ids tpl)) in NI. exact (m_outside_not_regen A B tpl _ T ET n xa yb NI Exa Eyb Hd').
  Qed.

  (** C04_in_results_partial: whatever the pruning keeps, if the identity is kept the reaction is among the ITS built *)
  Theorem in_results_partial (kept : list mapping) : (core = true -> centre_carries (its_construct G H) = true) ->
    In (identity core invert G H) kept ->
    exists T, In (Some T) (its_list core invert G H kept) /\ regen_exact T A B = true.
  Proof.
    intros CC I. destruct (identity_glue CC) as (T & ET & ER). exists T. split; [|exact ER].
    unfold its_list, identity, regenerate in *. rewrite rule_is_template in *.
    apply in_map_iff. exists (id_map (node_ids (pattern_of (dec_side iG eG tpl)))). auto.
  Qed.

  (** the same with the pruning premise in the form C11 provides it: the kept list contains the identity composed with
      a symmetry of the rule (not necessarily the identity itself) *)
  Theorem in_results_symmetric (s s' : N -> N) (kept : list mapping) :
    (core = true -> centre_carries (its_construct G H) = true) ->
    rule_aut tpl s s' -> In (aut_map tpl s) kept ->
    exists T, In (Some T) (its_list core invert G H kept) /\ regen_exact T A B = true.
  Proof.
    intros CC RA I. pose proof (template_describes CC) as D.
    destruct (aut_regen A B tpl s s' pair_AB D RA) as (_ & T & ET & ER). exists T. split; [exact (in_its_list kept _ T I ET)|exact ER].
  Qed.
End Final.
