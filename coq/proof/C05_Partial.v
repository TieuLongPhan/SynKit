(** C05 — SynReactor(partial=True): the raw matches of the PartialMatcher engine ([partial_matches]: connected components
    of the pattern, per-component search with strict_cc_count = False, combinations of k = n, n-1, ..., 1 components,
    back-tracking over host-disjoint embeddings) and the matches kept by the symmetry pruning commute LITERALLY with
    any injective renumbering of substrate and rule — for every strategy and every embedding cap.  Nothing in the
    engine looks at the numbers. *)
From Coq Require Import List ZArith.
From SK Require Import lib.LGraph.
From SK Require Import model.C03_Model model.C05_Model proof.C05_Proof proof.C05_Pipe proof.C05_Comp.
Import ListNotations.

(** induced subgraphs commute with an injective renumbering *)
Lemma induced_relabel {A B} (f : N -> N) (Hf : inj f) (g : lgraph A B) (L : list N) :
  induced_sub (relabel f g) (map f L) = relabel f (induced_sub g L).
Proof.
  unfold induced_sub, relabel. simpl. f_equal.
  - apply filter_map_comm. intros [k a]. simpl. apply (lmem_map f Hf).
  - apply filter_map_comm. intros [[a b] x]. simpl. rewrite !(lmem_map f Hf). reflexivity.
Qed.

Lemma existsb_mem_map (f : N -> N) (Hf : inj f) (used l : list N) :
  existsb (fun h => LGraph.mem h (map f used)) (map f l) = existsb (fun h => LGraph.mem h used) l.
Proof. induction l as [|h r IH]; simpl; [reflexivity|]. rewrite (lmem_map f Hf), IH. reflexivity. Qed.

Section WithThr.
Context {TH : Thr}.

Lemma comp_embeddings_relabel strat sg pi (Hs : inj sg) (Hp : inj pi) (H P : C06_Model.graph) :
  comp_embeddings strat (relabel pi H) (relabel sg P) = map (map (mv sg pi)) (comp_embeddings strat H P).
Proof.
  unfold comp_embeddings. rewrite (comps_relabel sg Hs P), !map_map. apply map_ext. intros pc. cbv zeta.
  rewrite (induced_relabel sg Hs P pc). unfold pcfg_of. apply find_relabel; assumption.
Qed.

Lemma combos_map {X Y} (f : X -> Y) k (l : list X) : combos k (map f l) = map (map f) (combos k l).
Proof.
  revert k. induction l as [|x r IH]; intros [|k]; simpl; try reflexivity.
  rewrite map_app, !IH, !map_map. reflexivity.
Qed.

Lemma pbt_map sg pi (Hp : inj pi) embs : forall used acc,
  pbt (map (map (mv sg pi)) embs) (map pi used) (mv sg pi acc) = map (mv sg pi) (pbt embs used acc).
Proof.
  induction embs as [|lvl rest IH]; intros used acc; [reflexivity|].
  cbn [map pbt]. rewrite flat_map_map', map_flat_map'. apply flat_map_ext. intros emb.
  assert (E : map snd (mv sg pi emb) = map pi (map snd emb)) by (unfold mv; rewrite !map_map; reflexivity).
  rewrite E.
  rewrite (existsb_mem_map pi Hp). destruct (existsb _ (map snd emb)); [reflexivity|].
  rewrite <- map_app.
  replace (mv sg pi acc ++ mv sg pi emb) with (mv sg pi (acc ++ emb)) by (unfold mv; rewrite map_app; reflexivity).
  apply IH.
Qed.

Lemma match_all_k_map sg pi (Hp : inj pi) embs :
  match_all_k (map (map (mv sg pi)) embs) = map (mv sg pi) (match_all_k embs).
Proof.
  unfold match_all_k. rewrite map_length, map_flat_map'. apply flat_map_ext. intros k.
  rewrite combos_map, flat_map_map', map_flat_map'. apply flat_map_ext. intros combo.
  apply (pbt_map sg pi Hp combo [] []).
Qed.

Lemma plimit_map {X Y} (f : X -> Y) (l : list X) : plimit (map f l) = map f (plimit l).
Proof. unfold plimit. destruct (pmax_val =? 0)%N; [reflexivity|]. apply firstn_map. Qed.

Theorem partial_matches_relabel strat sg pi (Hs : inj sg) (Hp : inj pi) (host : hostg) (pat : molg) :
  partial_matches strat (relabel pi host) (relabel sg pat) = option_map (map (mv sg pi)) (partial_matches strat host pat).
Proof.
  unfold partial_matches. rewrite host_c06_relabel, pat_c06_relabel, (comps_relabel sg Hs (pat_c06 pat)).
  destruct (C06_Model.comps (pat_c06 pat)) as [|c cs] eqn:E; [reflexivity|].
  cbn [map option_map]. f_equal.
  rewrite (comp_embeddings_relabel strat sg pi Hs Hp), (match_all_k_map sg pi Hp). apply plimit_map.
Qed.

(** raw and kept matches of SynReactor(partial=True).mappings *)
Theorem partial_kept_relabel strat sg pi (Hs : inj sg) (Hp : inj pi) (host : hostg) (p : prepared) :
  partial_matches strat (relabel pi host) (p_pat (relabel_prep sg p))
  = option_map (map (mv sg pi)) (partial_matches strat host (p_pat p)) /\
  forall raw, partial_matches strat host (p_pat p) = Some raw ->
    prune (p_rc (relabel_prep sg p)) (map (mv sg pi) raw) = map (mv sg pi) (prune (p_rc p) raw).
Proof.
  split.
  - destruct p as [rc l r flag pat]. simpl. apply partial_matches_relabel; assumption.
  - intros raw _. destruct p as [rc l r flag pat]. simpl. apply prune_relabel; assumption.
Qed.

End WithThr.

(** non-vacuity: thiol dimerisation  [C:1][SH:2].[C:3][SH:4]>>[C:1][S:2][S:4][C:3]  on CCS.CS — partial matching finds the
    full matches and the matches of one component alone *)
#[local] Instance default_thr : Thr := thr_of None.
Definition px_host : hostg := (LG [(1%N, (NA 67%N false (3)%Z (0)%Z [67%N])); (2%N, (NA 67%N false (2)%Z (0)%Z [67%N; 83%N])); (3%N, (NA 83%N false (1)%Z (0)%Z [67%N])); (4%N, (NA 67%N false (3)%Z (0)%Z [83%N])); (5%N, (NA 83%N false (1)%Z (0)%Z [67%N]))] [(1%N, 2%N, (2)%Z); (2%N, 3%N, (2)%Z); (4%N, 5%N, (2)%Z)]).
Definition px_tpl : its := (LG [(2%N, IN (NA 83%N false (1)%Z (0)%Z [67%N]) (NA 83%N false (0)%Z (0)%Z [67%N; 83%N]) 0%Z None); (4%N, IN (NA 83%N false (1)%Z (0)%Z [67%N]) (NA 83%N false (0)%Z (0)%Z [67%N; 83%N]) 0%Z None)] [(2%N, 4%N, ((0)%Z, (2)%Z, (-2)%Z))]).
Definition px_p : prepared :=
  match prepare false true px_tpl with Some p => p | None => Prep (LG [] []) (LG [] []) (LG [] []) false (LG [] []) end.
Definition px_raw : list mapping := match partial_matches 0%N px_host (p_pat px_p) with Some r => r | None => [] end.
Definition px_shift (n : N) : N := (n + 10)%N.

Example partial_examples :
  length px_raw = 6%nat /\ length (prune (p_rc px_p) px_raw) = 3%nat /\
  length (filter (fun m : mapping => Nat.eqb (length m) 2) px_raw) = 2%nat /\
  partial_matches 0%N (relabel px_shift px_host) (p_pat (relabel_prep px_shift px_p))
  = Some (map (mv px_shift px_shift) px_raw) /\
  partial_matches 1%N px_host (LG [] []) = None.
Proof. repeat apply conj; vm_compute; reflexivity. Qed.
