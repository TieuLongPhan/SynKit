(** C08 — the repaired SynRule equality (model/C08_Rule2.v): the signature of the two-sided reaction-centre graph is equal exactly
    for ITS graphs that are isomorphic by ONE bijection preserving the (before, after) labels of atoms and bonds; hence
    SynRule.__eq__ = True implies such a bijection, and - the fragments being derived from the ITS graph - conversely. *)
From Coq Require Import String List NArith ZArith Bool Arith Lia Permutation.
From SK Require Import lib.LGraph lib.StrJoin.
From SK Require Import model.C08_Model model.C08_Rule2 proof.C08_Spec proof.C08_Rule2Spec proof.C08_Sort proof.C08_Faithful proof.C08_Cov
                       proof.C08_SigFun proof.C08_Render proof.C08_Nauty proof.C08_Sound proof.C08_Invariant proof.C08_Value proof.C08_RuleJoint.
Import ListNotations.

(* ---------------- the encoding is injective on the covered attributes ---------------- *)
Lemma alnum_elc c : alnum c = true -> elc c = true.
Proof. unfold alnum, elc. intros H. rewrite H. reflexivity. Qed.
Lemma alnum_not_star : alnum 42%N = false.
Proof. reflexivity. Qed.
Lemma dig_alnum c : isdig c = true -> alnum c = true.
Proof. unfold isdig, alnum. intros ->. reflexivity. Qed.
Lemma alpha_alnum c : isalpha c = true -> alnum c = true.
Proof. unfold isalpha, alnum. intros H. destruct ((48 <=? c)%N && (c <=? 57)%N); [reflexivity|]. simpl. exact H. Qed.
Lemma zenc_alnum z : forallb alnum (zenc z) = true.
Proof.
  unfold zenc. cbn [forallb]. rewrite (forallb_weaken isdig alnum _ dig_alnum (decN_dig _)).
  destruct (z <? 0)%Z; reflexivity.
Qed.
Lemma zenc_inj a b : zenc a = zenc b -> a = b.
Proof.
  unfold zenc. intros E. inversion E as [[E1 E2]]. apply decN_inj in E2.
  destruct (Z.ltb_spec a 0), (Z.ltb_spec b 0); try discriminate; lia.
Qed.
Lemma pybool_alnum b : forallb alnum (pybool b) = true.
Proof. apply (forallb_weaken isalpha alnum _ alpha_alnum). apply pybool_alpha. Qed.

Definition cv := (list N * Z * bool * Z)%type.
Definition EC2 (c : cv * cv) : cv :=
  let '((e0, c0, a0, h0), (e1, c1, a1, h1)) := c in (join 42%N [e0; e1; pybool a1; zenc c1; zenc h1], c0, a0, h0).
Definition cv_ok (c : cv * cv) : Prop := el2_ok (fst (fst (fst (fst c)))) /\ el2_ok (fst (fst (fst (snd c)))).
Lemma ncov_enc a : ncov (enc_attr a) = EC2 (ncov2 a).
Proof. destruct a as [[e0 a0 c0 h0 m0] [e1 a1 c1 h1 m1]]. reflexivity. Qed.
Lemma nostar x : forallb alnum x = true -> nosep 42%N x.
Proof. intros H. apply (cls_nosep alnum); auto. Qed.
Lemma EC2_inj c d : cv_ok c -> cv_ok d -> EC2 c = EC2 d -> c = d.
Proof.
  destruct c as [[[[e0 c0] a0] h0] [[[e1 c1] a1] h1]], d as [[[[e0' c0'] a0'] h0'] [[[e1' c1'] a1'] h1']].
  unfold cv_ok, el2_ok. cbn [fst snd]. intros [K0 K1] [K0' K1'] E. unfold EC2 in E.
  assert (Ej : join 42%N [e0; e1; pybool a1; zenc c1; zenc h1] = join 42%N [e0'; e1'; pybool a1'; zenc c1'; zenc h1']) by congruence.
  assert (Ec : c0 = c0') by congruence. assert (Ea : a0 = a0') by congruence. assert (Eh : h0 = h0') by congruence. subst. clear E.
  apply join_inj in Ej; try discriminate.
  - pose proof (f_equal (fun l : list str => nth 0 l []) Ej) as E1. pose proof (f_equal (fun l : list str => nth 1 l []) Ej) as E2.
    pose proof (f_equal (fun l : list str => nth 2 l []) Ej) as E3. pose proof (f_equal (fun l : list str => nth 3 l []) Ej) as E4.
    pose proof (f_equal (fun l : list str => nth 4 l []) Ej) as E5. cbn [nth] in E1, E2, E3, E4, E5.
    apply pybool_inj in E3. apply zenc_inj in E4. apply zenc_inj in E5. subst. reflexivity.
  - repeat constructor; apply nostar; auto using pybool_alnum, zenc_alnum.
  - repeat constructor; apply nostar; auto using pybool_alnum, zenc_alnum.
Qed.

(* ---------------- the encoded graph ---------------- *)
Definition ek (c : N * (cv * cv)) : N * cv := (fst c, EC2 (snd c)).
Lemma cov_nodes_enc g : cov_nodes (enc2 g) = map ek (cov2_nodes g).
Proof.
  unfold cov_nodes, cov2_nodes, enc2. cbn [gnodes]. rewrite !map_map. apply map_ext. intros [n a]. unfold covn, ek. cbn [fst snd].
  rewrite ncov_enc. reflexivity.
Qed.
Lemma cov_edges_enc g : cov_edges (enc2 g) = cov2_edges g.
Proof. reflexivity. Qed.
Lemma node_ids_enc g : node_ids (enc2 g) = node_ids g.
Proof. unfold node_ids, enc2. cbn [gnodes]. rewrite map_map. reflexivity. Qed.
Lemma enc_relabel f g : enc2 (relabel f g) = relabel f (enc2 g).
Proof. unfold enc2, relabel. cbn [gnodes gedges]. rewrite !map_map. reflexivity. Qed.
Lemma wf_enc g : wf (enc2 g) <-> wf g.
Proof. unfold wf. rewrite node_ids_enc. reflexivity. Qed.

Lemma cov2_ok g : els2_ok g -> Forall (fun c => cv_ok (snd c)) (cov2_nodes g).
Proof.
  intros H. apply Forall_forall. intros c I. unfold cov2_nodes in I. apply in_map_iff in I. destruct I as ([n [a0 a1]] & <- & I).
  destruct (H _ I) as [H0 H1]. unfold cv_ok, ncov2, ncov. cbn [fst snd] in *. auto.
Qed.
Lemma ek_inj c d : cv_ok (snd c) -> cv_ok (snd d) -> ek c = ek d -> c = d.
Proof. destruct c as [n c], d as [m d]. unfold ek. cbn [fst snd]. intros Hc Hd E. inversion E. f_equal. apply EC2_inj; auto. Qed.

Lemma forallb_join (P : N -> bool) sep xs : P sep = true -> Forall (fun x => forallb P x = true) xs -> forallb P (join sep xs) = true.
Proof.
  intros Hs. induction 1 as [|x xs Hx Hxs IH]; [reflexivity|].
  destruct xs as [|x2 xs]; [exact Hx|].
  change (join sep (x :: x2 :: xs)) with (x ++ sep :: join sep (x2 :: xs)).
  rewrite forallb_app. cbn [forallb]. rewrite Hx, Hs, IH. reflexivity.
Qed.
Lemma els_ok_enc g : els2_ok g -> els_ok (enc2 g).
Proof.
  intros H p I. unfold enc2 in I. cbn [gnodes] in I. apply in_map_iff in I. destruct I as ([n [a0 a1]] & <- & I).
  destruct (H _ I) as [H0 H1]. cbn [fst snd] in *. unfold el_ok, enc_attr, enc_el. cbn [el fst snd].
  apply forallb_join; [reflexivity|].
  repeat constructor; apply (forallb_weaken alnum elc _ alnum_elc); auto using pybool_alnum, zenc_alnum.
Qed.
Lemma els2_ok_relabel f g : els2_ok g -> els2_ok (relabel f g).
Proof.
  intros H p I. unfold relabel in I. cbn [gnodes] in I. apply in_map_iff in I. destruct I as (q & <- & I). cbn [snd]. apply H. exact I.
Qed.

Lemma geq2_enc g h : els2_ok g -> els2_ok h -> (geq2 g h <-> geq_cov (enc2 g) (enc2 h)).
Proof.
  intros Kg Kh. unfold geq2, geq_cov. rewrite !cov_nodes_enc, !cov_edges_enc. split; intros [H1 H2]; split; auto.
  - apply Permutation_map. exact H1.
  - apply Permutation_sym in H1. apply Permutation_map_inv in H1. destruct H1 as (l3 & E & P).
    assert (F3 : Forall (fun c => cv_ok (snd c)) l3).
    { apply Forall_forall. intros c I. pose proof (cov2_ok g Kg) as F. rewrite Forall_forall in F. apply F.
      apply (Permutation_in _ (Permutation_sym P)). exact I. }
    assert (El : cov2_nodes h = l3).
    { revert E. apply (map_inj_in ek (fun c => cv_ok (snd c))); auto; [|apply cov2_ok; auto]. intros x y Hx Hy. apply ek_inj; auto. }
    rewrite El. exact P.
Qed.

Theorem iso2_enc g h : els2_ok g -> els2_ok h -> (iso2 g h <-> iso_cov (enc2 g) (enc2 h)).
Proof.
  intros Kg Kh. unfold iso2, iso_cov. rewrite node_ids_enc. split; intros (f & Hf & Hq); exists f; split; auto.
  - rewrite <- enc_relabel. apply (geq2_enc _ _ (els2_ok_relabel f g Kg) Kh). exact Hq.
  - apply (geq2_enc _ _ (els2_ok_relabel f g Kg) Kh). rewrite enc_relabel. exact Hq.
Qed.

(* ---------------- the two-sided reaction-centre signature is exact ---------------- *)
Theorem rc2_sig_exact g h : wf g -> wf h -> els2_ok g -> els2_ok h -> (rc2_sig g = rc2_sig h <-> iso2 g h).
Proof.
  intros Wg Wh Kg Kh. rewrite (iso2_enc g h Kg Kh). unfold rc2_sig.
  apply (syngraph_nauty str (fun s => s) (enc2 g) (enc2 h)); auto; try (apply wf_enc; auto); apply els_ok_enc; auto.
Qed.

(* ---------------- SynRule.__eq__ with the two-sided reaction-centre signature ---------------- *)
Definition rule2_ok (a : rule2) : Prop :=
  (wf (fst (fst a)) /\ els2_ok (fst (fst a))) /\ (wf (snd (fst a)) /\ els_ok (snd (fst a))) /\ (wf (snd a) /\ els_ok (snd a)).

Theorem rule2_eqb_spec a b : rule2_ok a -> rule2_ok b ->
  (rule2_eqb a b = true <-> iso2 (fst (fst a)) (fst (fst b)) /\ iso_cov (snd (fst a)) (snd (fst b)) /\ iso_cov (snd a) (snd b)).
Proof.
  intros ((W1 & K1) & (W2 & K2) & (W3 & K3)) ((W1' & K1') & (W2' & K2') & (W3' & K3')).
  unfold rule2_eqb. rewrite !andb_true_iff, !str_eqb_spec.
  rewrite (rc2_sig_exact _ _ W1 W1' K1 K1').
  rewrite (syngraph_nauty str (fun s => s) _ _ W2 W2' K2 K2' (fun e => e)).
  rewrite (syngraph_nauty str (fun s => s) _ _ W3 W3' K3 K3' (fun e => e)). tauto.
Qed.

(* equal rules are isomorphic as rules: ONE bijection preserving the ITS graph with its two-sided labels *)
Theorem rule2_eq_sound a b : rule2_ok a -> rule2_ok b -> rule2_eqb a b = true -> iso2 (fst (fst a)) (fst (fst b)).
Proof. intros Ha Hb E. apply (rule2_eqb_spec a b Ha Hb) in E. tauto. Qed.

(* the fragments are derived from the ITS graph (its_decompose, hydrogen handling: other properties): isomorphic ITS graphs have
   isomorphic fragments.  Under that premise equality is EXACTLY isomorphism of the ITS graphs. *)
Definition fragments_derived (a b : rule2) : Prop :=
  iso2 (fst (fst a)) (fst (fst b)) -> iso_cov (snd (fst a)) (snd (fst b)) /\ iso_cov (snd a) (snd b).
Theorem rule2_eq_exact a b : rule2_ok a -> rule2_ok b -> fragments_derived a b ->
  (rule2_eqb a b = true <-> iso2 (fst (fst a)) (fst (fst b))).
Proof.
  intros Ha Hb Hd. rewrite (rule2_eqb_spec a b Ha Hb). split; [tauto|]. intros Hi. destruct (Hd Hi). auto.
Qed.

Lemma rule2_eqb_same_left its its' l r r' : str_eqb (ser_nauty r) (ser_nauty r') = true ->
  rule2_eqb (its, l, r) (its', l, r') = str_eqb (rc2_sig its) (rc2_sig its').
Proof. intros E. unfold rule2_eqb. cbn [fst snd]. rewrite E, str_eqb_refl. reflexivity. Qed.

(* non-vacuity: the witness w_A, w_B (C08_RuleJoint.v: the three one-sided signatures agree, [synrule_eqb] = true) with the two-sided
   reaction-centre graph: the repaired comparison tells the rules apart; a renumbered copy of a rule compares equal *)
Definition w2_its (a b : N) (ids : list N) : graph2 :=
  let q n := (if orb (N.eqb n a) (N.eqb n b) then 1 else 0)%Z in
  let id k := nth (N.to_nat k - 1) ids 0%N in
  LG (map (fun n => (id n, (wC 0, wC (q n)))) [1%N; 2%N; 3%N; 4%N])
     [(id 1%N, id 2%N, EA3 4 (Some 2%Z) (Some 2%Z)); (id 3%N, id 4%N, EA3 4 (Some 2%Z) (Some 2%Z));
      (id 1%N, id 4%N, EA3 0 (Some (-2)%Z) (Some 2%Z)); (id 3%N, id 2%N, EA3 0 (Some (-2)%Z) (Some 2%Z))].
Definition w2_A : rule2 := (w2_its 1 2 [1%N; 2%N; 3%N; 4%N], w_l, w_r 1 2).
Definition w2_B : rule2 := (w2_its 1 4 [1%N; 2%N; 3%N; 4%N], w_l, w_r 1 4).
Definition w2_A' : rule2 := (w2_its 1 2 [7%N; 3%N; 9%N; 5%N], w_l, w_r 1 2).
Example rule2_ex : synrule_eqb ser_nauty w_A w_B = true /\ rule2_eqb w2_A w2_B = false /\ rule2_eqb w2_A w2_A' = true
                   /\ gnodes (fst (fst w2_A)) <> gnodes (fst (fst w2_A')).
Proof.
  split; [exact w_eqb|].
  (* the fragments are those of w_A, w_B: only the two-sided signatures are left to evaluate *)
  split; [|split].
  - etransitivity; [exact (rule2_eqb_same_left _ _ _ _ _ w_r_sig)|]. vm_compute. reflexivity.
  - etransitivity; [exact (rule2_eqb_same_left _ _ _ _ _ (str_eqb_refl _))|].
    (* the renumbering 1, 2, 3, 4 |-> 7, 3, 9, 5 is an isomorphism of the two-sided graphs *)
    assert (K : forall ids, els2_ok (w2_its 1 2 ids)) by (intros ids p [<-|[<-|[<-|[<-|[]]]]]; split; reflexivity).
    apply str_eqb_spec, rc2_sig_exact; try (apply wfb_sound; reflexivity); try apply K.
    exists (fun x => nth (N.to_nat x) [0; 7; 3; 9; 5]%N 0%N). split.
    + intros x y Hx Hy. simpl in Hx, Hy.
      destruct Hx as [<-|[<-|[<-|[<-|[]]]]], Hy as [<-|[<-|[<-|[<-|[]]]]]; vm_compute; intros E; try reflexivity; discriminate.
    + split; vm_compute; apply Permutation_refl.
  - vm_compute. discriminate.
Qed.

Print Assumptions rc2_sig_exact.
Print Assumptions rule2_eqb_spec.
Print Assumptions rule2_eq_exact.

(* flat statements for the props file *)
Theorem rule2_eq_sound_flat (its its' : graph2) (l r l' r' : graph) :
  wf its -> wf l -> wf r -> wf its' -> wf l' -> wf r' -> els2_ok its -> els_ok l -> els_ok r -> els2_ok its' -> els_ok l' -> els_ok r' ->
  rule2_eqb (its, l, r) (its', l', r') = true ->
  exists f, C08_Spec.inj_on f (node_ids its) /\ geq2 (relabel f its) its'.
Proof. intros. apply (rule2_eq_sound (its, l, r) (its', l', r')); unfold rule2_ok; cbn [fst snd]; auto. Qed.
Theorem rule2_eq_exact_flat (its its' : graph2) (l r l' r' : graph) :
  wf its -> wf l -> wf r -> wf its' -> wf l' -> wf r' -> els2_ok its -> els_ok l -> els_ok r -> els2_ok its' -> els_ok l' -> els_ok r' ->
  ((exists f, C08_Spec.inj_on f (node_ids its) /\ geq2 (relabel f its) its') -> iso_cov l l' /\ iso_cov r r') ->
  (rule2_eqb (its, l, r) (its', l', r') = true <-> exists f, C08_Spec.inj_on f (node_ids its) /\ geq2 (relabel f its) its').
Proof. intros. apply (rule2_eq_exact (its, l, r) (its', l', r')); unfold rule2_ok, fragments_derived; cbn [fst snd]; auto. Qed.
Theorem rule2_eqb_spec_flat (its its' : graph2) (l r l' r' : graph) :
  wf its -> wf l -> wf r -> wf its' -> wf l' -> wf r' -> els2_ok its -> els_ok l -> els_ok r -> els2_ok its' -> els_ok l' -> els_ok r' ->
  (rule2_eqb (its, l, r) (its', l', r') = true <->
   (exists f, C08_Spec.inj_on f (node_ids its) /\ geq2 (relabel f its) its') /\ iso_cov l l' /\ iso_cov r r').
Proof. intros. apply (rule2_eqb_spec (its, l, r) (its', l', r')); unfold rule2_ok; cbn [fst snd]; auto. Qed.
