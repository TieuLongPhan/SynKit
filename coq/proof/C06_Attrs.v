(** C06 — attribute selections: the closures over the caller's attribute dictionaries are the
    comparators of the projected graphs; every enumeration the search can ask for with the
    closures is the enumeration on the projections; hence every theorem about [find] speaks
    about [find_sel]. *)
From Coq Require Import List NArith Bool Arith Lia.
From SK Require Import lib.LGraph lib.C01_GraphLemmas lib.Mono model.C06_Model model.C06_Attrs.
Import ListNotations.

(** ---------- the closures ---------- *)
Lemma leqb_map_forallb (f g : N -> N) na :
  leqb (map f na) (map g na) = forallb (fun k => N.eqb (f k) (g k)) na.
Proof. induction na as [|k r IH]; simpl; [reflexivity|]. rewrite IH. reflexivity. Qed.

Lemma node_match_sel_proj na h p : node_match_sel na h p = nm (proj_n na h) (proj_n na p).
Proof. unfold node_match_sel, nm, proj_n. simpl. rewrite leqb_map_forallb. reflexivity. Qed.

Lemma edge_match_sel_proj ea h p : edge_match_sel ea h p = em (proj_e ea h) (proj_e ea p).
Proof. unfold edge_match_sel, em, proj_e. rewrite leqb_map_forallb. reflexivity. Qed.

Lemma forallb_eqb_spec (f g : N -> N) l :
  forallb (fun k => N.eqb (f k) (g k)) l = true <-> forall k, In k l -> f k = g k.
Proof.
  rewrite forallb_forall. split; intros A k Hk.
  - apply N.eqb_eq. apply A. exact Hk.
  - apply N.eqb_eq. apply A. exact Hk.
Qed.

Lemma node_match_sel_meaning na h p :
  node_match_sel na h p = true <->
  (forall k, In k na -> aget k (fst h) = aget k (fst p)) /\ (hc p <= hc h)%N.
Proof.
  unfold node_match_sel. rewrite andb_true_iff, forallb_eqb_spec, N.leb_le. reflexivity.
Qed.

Lemma edge_match_sel_meaning ea h p :
  edge_match_sel ea h p = true <-> forall k, In k ea -> aget k h = aget k p.
Proof. unfold edge_match_sel. apply forallb_eqb_spec. Qed.

(** ---------- structure of a projection ---------- *)
Lemma node_ids_project na ea g : node_ids (project na ea g) = node_ids g.
Proof. unfold node_ids, project. simpl. rewrite map_map. reflexivity. Qed.

Lemma label_project na ea (g : rgraph) u :
  label (project na ea g) u = option_map (proj_n na) (label g u).
Proof.
  unfold label, project. simpl.
  induction (gnodes g) as [|[k v] r IH]; simpl; [reflexivity|].
  destruct (N.eqb u k); [reflexivity|exact IH].
Qed.

Lemma assoc_none_notin {V} k (l : list (N * V)) : assoc k l = None -> ~ In k (map fst l).
Proof. apply assoc_none. Qed.

Lemma lab_project na ea (g : rgraph) u :
  In u (node_ids g) -> lab (project na ea g) u = proj_n na (rlab g u).
Proof.
  intros Hin. unfold lab, rlab. rewrite label_project.
  destruct (label g u) eqn:E; simpl; [reflexivity|].
  exfalso. exact (assoc_none_notin _ _ E Hin).
Qed.

Lemma adj_project na ea (g : rgraph) u v :
  LGraph.adj (project na ea g) u v = option_map (proj_e ea) (LGraph.adj g u v).
Proof.
  unfold LGraph.adj, project. simpl.
  induction (gedges g) as [|[[a b] x] r IH]; simpl; [reflexivity|].
  destruct ((N.eqb a u && N.eqb b v) || (N.eqb a v && N.eqb b u)); [reflexivity|exact IH].
Qed.

Lemma nbrs_project na ea (g : rgraph) u : nbrs (project na ea g) u = nbrs g u.
Proof.
  unfold nbrs, project. simpl.
  induction (gedges g) as [|[[a b] x] r IH]; simpl; [reflexivity|].
  rewrite IH. reflexivity.
Qed.

Lemma degree_project na ea (g : rgraph) u : degree (project na ea g) u = rdegree g u.
Proof. unfold degree, rdegree. rewrite nbrs_project. reflexivity. Qed.

(** ---------- the enumerator on dictionaries = the enumerator on projections ---------- *)
Lemma forallb_ext_l {X} (f g : X -> bool) l : (forall x, f x = g x) -> forallb f l = forallb g l.
Proof. intros E. induction l as [|x r IH]; simpl; [reflexivity|]. rewrite E, IH. reflexivity. Qed.

(** two runs of the enumerator whose node tests agree on the nodes they meet and whose edge tests agree
    list the same maps *)
Section ExtendExt.
Variables (A A' B B' : Type) (hn : list N) (pl hl : N -> A) (pl' hl' : N -> A').
Variables (pe he : N -> N -> option B) (pe' he' : N -> N -> option B').
Variables (nm0 : A -> A -> bool) (nm1 : A' -> A' -> bool) (em0 : B -> B -> bool) (em1 : B' -> B' -> bool).
Variable ind : bool.
Hypothesis Hedge : forall p h ph, edge_ok pe' he' em1 ind p h ph = edge_ok pe he em0 ind p h ph.

Lemma extend_ext ps : (forall p h, In p ps -> In h hn -> nm1 (hl' h) (pl' p) = nm0 (hl h) (pl p)) -> forall acc,
  extend hn pl' hl' pe' he' nm1 em1 ind ps acc = extend hn pl hl pe he nm0 em0 ind ps acc.
Proof.
  induction ps as [|p ps IH]; intros Hnm acc; simpl; [reflexivity|].
  rewrite !flat_map_concat_map. f_equal. apply map_ext_in. intros h Hh.
  replace (ok pl' hl' pe' he' nm1 em1 ind p h acc) with (ok pl hl pe he nm0 em0 ind p h acc).
  - destruct (ok pl hl pe he nm0 em0 ind p h acc); [|reflexivity]. apply IH. intros q h' Hq. apply Hnm. right. exact Hq.
  - unfold ok. rewrite (Hnm p h (or_introl eq_refl) Hh), (forallb_ext_l _ _ acc (Hedge p h)). reflexivity.
Qed.
End ExtendExt.

Theorem monos_sel_project na ea (H P : rgraph) hn pn :
  incl hn (node_ids H) -> incl pn (node_ids P) ->
  monos_on (project na ea H) (project na ea P) hn pn = monos_sel na ea H P hn pn.
Proof.
  intros Hh Hp. unfold monos_on, monos_sel, monos. apply extend_ext.
  - intros p h ph. unfold edge_ok. rewrite !adj_project.
    destruct (LGraph.adj P p (fst ph)), (LGraph.adj H h (snd ph)); simpl; auto using edge_match_sel_proj.
  - intros p h Ip Ih. rewrite !lab_project by auto. symmetry. apply node_match_sel_proj.
Qed.

(** ---------- [find] only asks for whole-graph and component x component enumerations ---------- *)
Lemma comps_go_incl (g : graph) todo seen c : In c (comps_go g todo seen) -> incl c (node_ids g).
Proof.
  revert seen. induction todo as [|u r IH]; intros seen; simpl; [intros []|].
  destruct (LGraph.mem u seen); [apply IH|].
  intros [<-|Hin]; [|exact (IH _ Hin)].
  intros x Hx. apply filter_In in Hx. exact (proj1 Hx).
Qed.
Lemma comps_incl (g : graph) c : In c (comps g) -> incl c (node_ids g).
Proof. apply comps_go_incl. Qed.

Section EnumExt.
Variables (e1 e2 : list N -> list N -> list mapping) (H P : graph).
Hypothesis Hext : forall hn pn, incl hn (node_ids H) -> incl pn (node_ids P) -> e1 hn pn = e2 hn pn.

Lemma find_all_enum_ext maxr thr : find_all e1 maxr thr H P = find_all e2 maxr thr H P.
Proof. unfold find_all. rewrite Hext by apply incl_refl. reflexivity. Qed.

Lemma cc_outer_enum_ext cap thr pc : incl pc (node_ids P) -> forall cands maps n,
  (forall ih, In ih cands -> incl (snd ih) (node_ids H)) ->
  cc_outer e1 cap thr pc cands maps n = cc_outer e2 cap thr pc cands maps n.
Proof.
  intros Hpc. induction cands as [|[i hc] r IH]; intros maps n Hc; simpl; [reflexivity|].
  rewrite Hext by (try exact Hpc; apply (Hc (i, hc)); left; reflexivity).
  destruct (cc_inner cap thr i (e2 hc pc) maps n) as [[maps' n']|]; [|reflexivity].
  destruct (capped cap n'); [reflexivity|].
  apply IH. intros ih Hin. apply Hc. right. exact Hin.
Qed.

Lemma per_cc_all_enum_ext cap thr hcs : (forall ih, In ih hcs -> incl (snd ih) (node_ids H)) ->
  forall pcs, (forall pc, In pc pcs -> incl pc (node_ids P)) ->
  per_cc_all e1 cap thr hcs pcs = per_cc_all e2 cap thr hcs pcs.
Proof.
  intros Hh. induction pcs as [|pc r IH]; intros Hp; simpl; [reflexivity|].
  rewrite IH by (intros pc' Hin; apply Hp; right; exact Hin).
  rewrite (cc_outer_enum_ext cap thr pc (Hp pc (or_introl eq_refl))).
  - reflexivity.
  - intros ih Hin. apply filter_In in Hin. apply Hh. exact (proj1 Hin).
Qed.

Lemma index_from_snd {X} (l : list X) : forall k ih, In ih (index_from k l) -> In (snd ih) l.
Proof.
  induction l as [|x r IH]; intros k ih; simpl; [intros []|].
  intros [<-|Hin]; [left; reflexivity|right; exact (IH _ _ Hin)].
Qed.

Lemma find_comp_enum_ext maxr thr strict : find_comp e1 maxr thr strict H P = find_comp e2 maxr thr strict H P.
Proof.
  unfold find_comp. rewrite find_all_enum_ext.
  rewrite (per_cc_all_enum_ext (cc_cap maxr (length (comps P))) thr (index_from 0 (comps H))).
  - reflexivity.
  - intros ih Hin. apply comps_incl. exact (index_from_snd _ _ _ Hin).
  - intros pc Hin. apply comps_incl. exact Hin.
Qed.

Theorem find_enum_ext c : find e1 c H P = find e2 c H P.
Proof.
  unfold find, find_bt. rewrite !find_comp_enum_ext, !find_all_enum_ext. reflexivity.
Qed.
End EnumExt.

(** [find] reads its two graphs only through the node lists, the components and the pre-filter verdict *)
Section GraphExt.
Variables (enum : list N -> list N -> list mapping) (G G' Q Q' : graph).
Hypothesis En : node_ids G = node_ids G'.
Hypothesis En' : node_ids Q = node_ids Q'.
Hypothesis Ec : comps G = comps G'.
Hypothesis Ec' : comps Q = comps Q'.

Lemma find_all_graph_ext maxr thr : find_all enum maxr thr G Q = find_all enum maxr thr G' Q'.
Proof. unfold find_all. rewrite En, En'. reflexivity. Qed.

Lemma find_comp_graph_ext maxr thr strict : find_comp enum maxr thr strict G Q = find_comp enum maxr thr strict G' Q'.
Proof. unfold find_comp. rewrite Ec, Ec', find_all_graph_ext. reflexivity. Qed.

Lemma find_graph_ext c : quick_pre_filter G Q (c_thr c) = quick_pre_filter G' Q' (c_thr c) ->
  find enum c G Q = find enum c G' Q'.
Proof. intros Eq. unfold find, find_bt. rewrite Eq, !find_comp_graph_ext, !find_all_graph_ext. reflexivity. Qed.
End GraphExt.

(** what the correspondence evaluates ([find_sel] with the enumerator run on the dictionaries)
    is [find] on the projections with the enumerator of the theorems *)
Theorem find_sel_project c na ea (H P : rgraph) :
  find_sel (monos_sel na ea H P) c na ea H P =
  find (monos_on (project na ea H) (project na ea P)) c (project na ea H) (project na ea P).
Proof.
  unfold find_sel. apply find_enum_ext. intros hn pn Hh Hp.
  symmetry. apply monos_sel_project.
  - rewrite <- (node_ids_project na ea H). exact Hh.
  - rewrite <- (node_ids_project na ea P). exact Hp.
Qed.

(** ---------- the pre-filter on the caller's graphs ---------- *)
Lemma qpf_loop_sel_project na ea (H P : rgraph) thr : forall ps est, incl ps (node_ids P) ->
  qpf_loop_sel na H P thr ps est = qpf_loop (project na ea H) (project na ea P) thr ps est.
Proof.
  induction ps as [|p ps IH]; intros est Hp; simpl; [reflexivity|].
  rewrite node_ids_project.
  rewrite (filter_ext_in _ (fun h => nm (lab (project na ea H) h) (lab (project na ea P) p) &&
                                     (degree (project na ea P) p <=? degree (project na ea H) h)%N)).
  - destruct (lenN _ =? 0)%N; [reflexivity|].
    destruct (thr * 10000 <? _)%N; [reflexivity|].
    apply IH. intros x Hx. apply Hp. right. exact Hx.
  - intros h Hh. rewrite (lab_project na ea H h Hh), (lab_project na ea P p) by (apply Hp; left; reflexivity).
    rewrite <- node_match_sel_proj, !degree_project. reflexivity.
Qed.

Theorem quick_pre_filter_sel_project na ea (H P : rgraph) thr :
  quick_pre_filter_sel na H P thr = quick_pre_filter (project na ea H) (project na ea P) thr.
Proof.
  unfold quick_pre_filter_sel, quick_pre_filter. rewrite node_ids_project.
  apply qpf_loop_sel_project. apply incl_refl.
Qed.
