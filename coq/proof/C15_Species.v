(** C15 — the species clause, operation by operation.

    [Inv] says: every species either occurs in a stored reaction or was, at some point, explicitly kept by the caller
    (the ghost field [kept] only grows).  That leaves one direction open: that a species the caller chose to keep is still
    THERE.  This file proves it at the level of the primitive operations: the species set shrinks only where the text allows —
      remove_species(x, prune_orphans=True)  may drop x, and nothing else;   with prune_orphans=False it drops NOTHING (x stays);
      remove_rxn(e)                          may drop species of the removed reaction only;
      add_rxn / merge / assign_mol / set_mol_map drop nothing.
    This bounds what a step MAY drop; with [Inv] a species of the removed reaction that still occurs elsewhere stays (occurring ⊆
    species).  That an orphaned species IS dropped is the complementary statement (proof/C15_Prune.v).
    (Reading of the text adopted by code, model and oracle: a kept species that enters a reaction again is an ordinary species —
    it goes when its last reaction goes.) *)
From stdpp Require Import gmap strings sets.
From SK Require Import model.C15_Model proof.C15_Proof.
Local Open Scope string_scope.

Lemma register_species s e r : species (register s e r) = species s ∪ rxn_species r.
Proof. done. Qed.

Lemma add_species_mono s l r rule eid : species s ⊆ species (add s l r rule eid).1.1.
Proof.
  unfold add. destruct eid as [e|].
  - destruct (decide _); [done|]. destruct (rxn_empty _); [done|]. cbn. apply union_subseteq_l.
  - destruct (next_id s (norm_rule rule)) as [[c e]|]; [|done]. destruct (rxn_empty _); [done|]. cbn. apply union_subseteq_l.
Qed.

Lemma out_discard_species e x s : species (out_discard e x s) = species s.
Proof. done. Qed.
Lemma in_discard_species e x s : species (in_discard e x s) = species s.
Proof. done. Qed.

(** remove_rxn drops species of the removed reaction only *)
Lemma remove_rxn_species s e s' rx : remove_rxn s e = (s', None) → edges s !! e = Some rx →
  species s ∖ rxn_species rx ⊆ species s' ∧ species s' ⊆ species s.
Proof.
  intros Hr He. pose proof (remove_rxn_pruned s e rx He) as (_ & _ & Hs & _). rewrite Hr in Hs.
  split; intros y; rewrite (Hs y).
  - intros [Hy Hn]%elem_of_difference. split; [done|]. by intros [? _].
  - by intros [? _].
Qed.

(** remove_species(x) drops at most x — and nothing at all with prune_orphans=False *)
Lemma remove_species_species s x prune s' : remove_species s x prune = (s', None) →
  species s ∖ {[ x ]} ⊆ species s' ∧ species s' ⊆ species s ∧ (prune = false → species s' = species s).
Proof.
  intros (_ & E & O & ->)%remove_species_shape. cbn. destruct prune.
  - split_and!; [done|by apply subseteq_difference_l|done].
  - split_and!; [by apply subseteq_difference_l|done..].
Qed.

Lemma merge_species_mono s o prefix : species s ⊆ species (merge s o prefix).1.
Proof.
  apply (merge_ind (λ s', species s ⊆ species s')); [done| |done].
  intros s0 l r rule eid H. etrans; [exact H|apply add_species_mono].
Qed.

Lemma assign_mol_species s x m : species (assign_mol s x m).1 = species s.
Proof. unfold assign_mol. by destruct (decide _). Qed.
Lemma set_mol_map_species s mp st cl : species (set_mol_map s mp st cl).1 = species s.
Proof. unfold set_mol_map. by destruct (st && _). Qed.

(** non-vacuity: A -> B; remove_species A keep; add A -> C as e2; remove_rxn e2 prunes A again (the reading adopted) while the
    strip itself kept it *)
Definition exsp_s1 : net := (remove_species (add empty_net {[ "A" := 1%positive ]} {[ "B" := 1%positive ]} "r" None).1.1 "A" false).1.
Definition exsp_s2 : net := (remove_rxn (add exsp_s1 {[ "A" := 1%positive ]} {[ "C" := 1%positive ]} "r" (Some "e2")).1.1 "e2").1.
Example ex_species_nonvacuous :
  bool_decide ("A" ∈ species exsp_s1) = true ∧ size (edges exsp_s1) = 1%nat ∧ bool_decide ("A" ∈ kept exsp_s1) = true ∧
  bool_decide ("A" ∈ species exsp_s2) = false ∧ bool_decide ("A" ∈ kept exsp_s2) = true.
Proof. split_and!; by vm_compute. Qed.
