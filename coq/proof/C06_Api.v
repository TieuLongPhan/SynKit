(** C06 — the call interface (Strategy.from_string, option defaults). *)
From Coq Require Import List NArith Bool Arith Lia.
From SK Require Import lib.LGraph model.C06_Model lib.C06_Spec proof.C06_All.
Import ListNotations.

Lemma lower_byte_idem b : lower_byte (lower_byte b) = lower_byte b.
Proof.
  unfold lower_byte. destruct ((65 <=? b)%N && (b <=? 90)%N) eqn:E; [|rewrite E; reflexivity].
  apply andb_prop in E. destruct E as [E1 E2]. apply N.leb_le in E1. apply N.leb_le in E2.
  destruct ((65 <=? b + 32)%N && (b + 32 <=? 90)%N) eqn:E'; [|reflexivity].
  apply andb_prop in E'. destruct E' as [_ E3]. apply N.leb_le in E3. lia.
Qed.

(** the accepted spellings: exactly the case variants (A-Z/a-z) of the four codes *)
Theorem from_string_spec (s : list N) (k : N) :
  from_string s = Some k <->
  (k = 0%N /\ map lower_byte s = s_all) \/ (k = 1%N /\ map lower_byte s = s_comp) \/
  (k = 2%N /\ map lower_byte s = s_bt) \/ (k = 3%N /\ map lower_byte s = s_partial).
Proof.
  split.
  - unfold from_string. cbv zeta.
    destruct (leqb _ s_all) eqn:E0; [apply leqb_spec in E0; intros [= <-]; auto|].
    destruct (leqb _ s_comp) eqn:E1; [apply leqb_spec in E1; intros [= <-]; auto|].
    destruct (leqb _ s_bt) eqn:E2; [apply leqb_spec in E2; intros [= <-]; auto 7|].
    destruct (leqb _ s_partial) eqn:E3; [apply leqb_spec in E3; intros [= <-]; auto 7|discriminate].
  - intros [[-> E]|[[-> E]|[[-> E]|[-> E]]]]; unfold from_string; cbv zeta; rewrite E; reflexivity.
Qed.

Theorem from_string_case_insensitive s : from_string (map lower_byte s) = from_string s.
Proof.
  unfold from_string. rewrite map_map. rewrite (map_ext _ lower_byte); [reflexivity|]. apply lower_byte_idem.
Qed.

Section Oracle.
Variable enum : list N -> list N -> list mapping.

(** every option omitted = component-aware, no result cap, strict component count, threshold 5000, no pre-filter *)
Theorem api_defaults H P :
  find_api enum SDefault None None None None H P = Result (find enum (Cfg 1 0 5000 true false) H P).
Proof. reflexivity. Qed.

(** a string and the enum member it denotes are interchangeable; partial is refused, anything else is a ValueError *)
Theorem api_strategy s maxr strict thr pref H P :
  find_api enum (SStr s) maxr strict thr pref H P =
  match from_string s with
  | None => ValueError
  | Some k => find_api enum (SMember k) maxr strict thr pref H P
  end.
Proof. unfold find_api. destruct (from_string s); reflexivity. Qed.

Theorem api_member k maxr strict thr pref H P : (k < 3)%N ->
  find_api enum (SMember k) maxr strict thr pref H P =
  Result (find enum (Cfg k (match maxr with Some m => m | None => 0%N end) (match thr with Some t => t | None => 5000%N end)
                           (match strict with Some b => b | None => true end) (match pref with Some b => b | None => false end)) H P).
Proof.
  intros Hk. unfold find_api. destruct k as [|[q|q|]]; try reflexivity; exfalso; lia.
Qed.

Theorem api_partial maxr strict thr pref H P :
  find_api enum (SMember 3) maxr strict thr pref H P = NotImplemented.
Proof. reflexivity. Qed.

(** max_results = 0 is the same request as max_results = None (the code tests "if max_results and ...") *)
Theorem api_maxr_zero s strict thr pref H P :
  find_api enum s (Some 0%N) strict thr pref H P = find_api enum s None strict thr pref H P.
Proof. reflexivity. Qed.
End Oracle.

Example ex_from_string :
  from_string [67; 111; 77; 112]%N = Some 1%N /\ from_string [66; 84]%N = Some 2%N /\
  from_string [97; 108; 108; 32]%N = None /\ from_string [] = None /\ from_string [80; 65; 82; 84; 73; 65; 76]%N = Some 3%N.
Proof. repeat apply conj; vm_compute; reflexivity. Qed.
