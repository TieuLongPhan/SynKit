(** C09 — Standardize.fit is idempotent (model/C09_Strings.v), relative to explicit contracts of the RDKit oracles:
    std.replace("[HH]", "[H][H]") commutes with the '.' / '>>' structure of the string, and reading a standard side back
    gives the same canonical fragments. *)
From Coq Require Import List NArith ZArith Bool Arith Lia Permutation.
From SK Require Import lib.StrJoin lib.LGraph model.C01_Model model.C09_Model model.C09_Strings proof.C08_Sort proof.C09_Str.
From SK Require model.C08_Model.
Import ListNotations.

(** * replace_HH and separators *)
Definition pat (a b c d : N) : bool := (N.eqb a 91 && N.eqb b 72 && N.eqb c 72 && N.eqb d 93)%bool.
Definition head_match (s : str) : bool := match s with a :: b :: c :: d :: _ => pat a b c d | _ => false end.

Lemma pat_true a b c d : pat a b c d = true -> a = 91%N /\ b = 72%N /\ c = 72%N /\ d = 93%N.
Proof. unfold pat. rewrite !andb_true_iff, !N.eqb_eq. tauto. Qed.
Lemma replace_HH_nomatch a r : head_match (a :: r) = false -> replace_HH (a :: r) = a :: replace_HH r.
Proof.
  destruct r as [|b [|c [|d r4]]]; try reflexivity. intros H. cbn [head_match] in H. unfold pat in H.
  cbn [replace_HH]. rewrite H. reflexivity.
Qed.
Lemma replace_HH_match a b c d r : pat a b c d = true -> replace_HH (a :: b :: c :: d :: r) = HH2 ++ replace_HH r.
Proof. intros H. unfold pat in H. cbn [replace_HH]. rewrite H. reflexivity. Qed.

Definition plain (c : N) : Prop := c <> 91%N /\ c <> 72%N /\ c <> 93%N.

Lemma head_match_app_sep x c y : plain c -> head_match (x ++ c :: y) = head_match x.
Proof.
  intros (P1 & P2 & P3).
  destruct x as [|a [|b [|c' [|d x4]]]]; cbn [app head_match]; try reflexivity.
  - destruct y as [|? [|? [|? ?]]]; try reflexivity. unfold pat. destruct (N.eqb_spec c 91); [contradiction|reflexivity].
  - destruct y as [|? [|? ?]]; try reflexivity. unfold pat. destruct (N.eqb_spec c 72); [contradiction|]. rewrite andb_false_r. reflexivity.
  - destruct y as [|? ?]; try reflexivity. unfold pat. destruct (N.eqb_spec c 72); [contradiction|]. rewrite !andb_false_r. reflexivity.
  - unfold pat. destruct (N.eqb_spec c 93); [contradiction|]. rewrite !andb_false_r. reflexivity.
Qed.

(** induction along the way [replace_HH] reads a string: four characters at a match, one otherwise *)
Lemma replace_HH_ind (P : str -> Prop) :
  P [] -> (forall a b c d r, pat a b c d = true -> P r -> P (a :: b :: c :: d :: r)) ->
  (forall a r, head_match (a :: r) = false -> P r -> P (a :: r)) -> forall x, P x.
Proof.
  intros P0 Pm Pn x. assert (G : forall n x, (length x <= n)%nat -> P x); [|apply (G (length x)); apply Nat.le_refl].
  induction n as [|n IH]; intros y Hl; (destruct y as [|a y']; [exact P0|]); cbn [length] in Hl; [lia|].
  destruct (head_match (a :: y')) eqn:E.
  - destruct y' as [|b [|c [|d r]]]; try discriminate E. apply (Pm a b c d r E). apply IH. cbn [length] in Hl. lia.
  - apply (Pn a y' E). apply IH. lia.
Qed.

Lemma replace_HH_sep x c y : plain c -> replace_HH (x ++ c :: y) = replace_HH x ++ c :: replace_HH y.
Proof.
  intros Pc. pattern x. apply replace_HH_ind; clear x; [|intros a b c' d r E IH|intros a r E IH].
  - apply replace_HH_nomatch. apply (head_match_app_sep [] c y Pc).
  - cbn [app]. rewrite !(replace_HH_match a b c' d _ E), IH, app_assoc. reflexivity.
  - pose proof (head_match_app_sep (a :: r) c y Pc) as Hm. cbn [app] in *. rewrite E in Hm.
    rewrite (replace_HH_nomatch a (r ++ c :: y) Hm), (replace_HH_nomatch a r E), IH. reflexivity.
Qed.

Lemma plain_DOT : plain DOT. Proof. repeat split; discriminate. Qed.
Lemma plain_GT : plain GT. Proof. repeat split; discriminate. Qed.

Lemma replace_HH_join : forall l, replace_HH (join DOT l) = join DOT (map replace_HH l).
Proof.
  induction l as [|x l IH]; [reflexivity|]. destruct l as [|y l]; [reflexivity|].
  change (join DOT (x :: y :: l)) with (x ++ DOT :: join DOT (y :: l)).
  rewrite (replace_HH_sep x DOT _ plain_DOT), IH. reflexivity.
Qed.
Lemma replace_HH_gg a b : replace_HH (a ++ GG ++ b) = replace_HH a ++ GG ++ replace_HH b.
Proof.
  change (a ++ GG ++ b) with (a ++ GT :: (GT :: b)). rewrite (replace_HH_sep a GT _ plain_GT).
  pose proof (replace_HH_sep [] GT b plain_GT) as E. change ([] ++ GT :: b) with (GT :: b) in E.
  change (replace_HH [] ++ GT :: replace_HH b) with (GT :: replace_HH b) in E. rewrite E. reflexivity.
Qed.

(** replace_HH introduces only '[', 'H', ']' *)
Lemma replace_HH_in x c : In c (replace_HH x) -> In c x \/ c = 91%N \/ c = 72%N \/ c = 93%N.
Proof.
  pattern x. apply replace_HH_ind; clear x; [|intros a b c' d r E IH|intros a r E IH]; intros I.
  - destruct I.
  - rewrite (replace_HH_match a b c' d _ E) in I. apply in_app_or in I. destruct I as [I|I].
    + right. unfold HH2 in I. simpl in I. intuition.
    + destruct (IH I) as [J|J]; [left; simpl; auto|right; exact J].
  - rewrite (replace_HH_nomatch a r E) in I. destruct I as [<-|I]; [left; left; reflexivity|].
    destruct (IH I) as [J|J]; [left; right; exact J|right; exact J].
Qed.
Lemma replace_HH_nosep c x : plain c -> nosep c x -> nosep c (replace_HH x).
Proof. intros (P1 & P2 & P3) H I. apply replace_HH_in in I. destruct I as [I|[I|[I|I]]]; auto. Qed.

(** * fit is idempotent *)
(** [reader side] = the canonical fragments the pipeline obtains from one side string:
    remove_aam=True: clean the side, then filter + write its fragments; remove_aam=False: filter + write directly *)
Definition reader (clean : str -> option str) (c : str -> option str) (ra : bool) (side : str) : option (list str) :=
  if ra then match clean side with Some x => if existsb (N.eqb GT) x then None else Some (valid_frags c x) | None => None end
  else Some (valid_frags c side).

(** contract on the OUTPUT sides (explicit premise about RDKit, monitored by the clause standardize-idempotent): a side of a
    standard form - sorted canonical fragments joined by '.', "[HH]" written "[H][H]" - is read back as the same fragments *)
Definition side_contract (clean : str -> option str) (c : str -> option str) (ra : bool) : Prop :=
  forall A : list str, A <> [] -> (forall f, In f A -> exists g, c g = Some f) ->
    exists B, reader clean c ra (replace_HH (join DOT A)) = Some B /\ Permutation B A.

Lemma existsb_GT x : existsb (N.eqb GT) x = false -> nosep GT x.
Proof.
  intros H I. assert (T : existsb (N.eqb GT) x = true) by (apply existsb_exists; exists GT; split; [exact I|apply N.eqb_refl]). congruence.
Qed.

Lemma fit_on_sides clean canon ra ist ua ub A B : nosep GT ua -> nosep GT ub ->
  reader clean (canon (negb ist)) ra ua = Some A -> reader clean (canon (negb ist)) ra ub = Some B ->
  std_fit clean canon ra ist (ua ++ GG ++ ub) =
  (if (is_nil A || is_nil B)%bool then SNone else SSome (replace_HH (join DOT (sort_strs A) ++ GG ++ join DOT (sort_strs B)))).
Proof.
  intros Ha Hb RA RB. unfold std_fit, reader in *. destruct ra.
  - unfold remove_atom_mapping. rewrite split_gg_app by assumption.
    destruct (clean ua) as [xa|]; [|discriminate]. destruct (existsb (N.eqb GT) xa) eqn:Ea; [discriminate|].
    destruct (clean ub) as [xb|]; [|discriminate]. destruct (existsb (N.eqb GT) xb) eqn:Eb; [discriminate|].
    injection RA as <-. injection RB as <-.
    unfold standardize_rsmi, std_sides. rewrite split_gg_app by (apply existsb_GT; assumption).
    destruct (is_nil (valid_frags (canon (negb ist)) xa) || is_nil (valid_frags (canon (negb ist)) xb))%bool; reflexivity.
  - injection RA as <-. injection RB as <-.
    unfold standardize_rsmi, std_sides. rewrite split_gg_app by assumption.
    destruct (is_nil (valid_frags (canon (negb ist)) ua) || is_nil (valid_frags (canon (negb ist)) ub))%bool; reflexivity.
Qed.

Theorem std_fit_idempotent clean canon ra ist s u :
  writer_contract (canon (negb ist)) -> side_contract clean (canon (negb ist)) ra ->
  std_fit clean canon ra ist s = SSome u -> std_fit clean canon ra ist u = SSome u.
Proof.
  intros WC SC E. destruct (std_fit_shape clean canon ra ist s u E) as (s1 & t & _ & Et & ->).
  destruct (standardize_shape _ _ _ Et) as (a & b & _ & -> & Na & Nb).
  set (c := canon (negb ist)) in *.
  destruct (std_side_ok c a WC Na) as ((NA & _ & GA) & _). destruct (std_side_ok c b WC Nb) as ((NB & _ & GB) & _).
  set (A := sort_strs (valid_frags c a)) in *. set (B := sort_strs (valid_frags c b)) in *.
  destruct (SC A NA (std_side_written c a)) as (A' & RA & PA). destruct (SC B NB (std_side_written c b)) as (B' & RB & PB).
  assert (Hsep : forall l, Forall (nosep GT) l -> nosep GT (replace_HH (join DOT l))).
  { intros l Hl. apply replace_HH_nosep; [exact plain_GT|]. apply join_nosep; [exact GT_ne_DOT|exact Hl]. }
  rewrite replace_HH_gg, (fit_on_sides clean canon ra ist _ _ A' B' (Hsep A GA) (Hsep B GB) RA RB).
  rewrite (is_nil_perm _ _ PA), (is_nil_perm _ _ PB), (sort_strs_perm _ _ PA), (sort_strs_perm _ _ PB).
  unfold A, B. rewrite !sort_strs_idem. fold A B.
  destruct A; [congruence|]. destruct B; [congruence|]. cbn [is_nil orb]. rewrite replace_HH_gg. reflexivity.
Qed.

(** non-vacuity: the toy oracle of C09_Str satisfies the side contract for remove_aam=False; "[HH]" is rewritten once *)
Example ex_replace_HH_idem : replace_HH (replace_HH [91; 72; 72; 93; 46; 67]%N) = replace_HH [91; 72; 72; 93; 46; 67]%N.
Proof. reflexivity. Qed.
Example ex_fit : std_fit (fun _ => None) (fun _ => ex_canon) false true [79; 67; 46; 67; 62; 62; 79; 46; 120; 120]%N = SSome [67; 46; 67; 79; 62; 62; 79]%N /\
                 std_fit (fun _ => None) (fun _ => ex_canon) false true [67; 46; 67; 79; 62; 62; 79]%N = SSome [67; 46; 67; 79; 62; 62; 79]%N.
Proof. vm_compute. split; reflexivity. Qed.
(** the side contract on the sides of that standard form: read back as the same fragments (both readers) *)
Example ex_side_contract_instance :
  reader (fun _ => None) ex_canon false (replace_HH (join DOT [[67]; [67; 79]]%N)) = Some [[67]; [67; 79]]%N /\
  reader (fun x => Some x) ex_canon true (replace_HH (join DOT [[79]]%N)) = Some [[79]]%N /\
  reader (fun _ => Some [62]%N) ex_canon true [79]%N = None.
Proof. vm_compute. repeat split. Qed.
