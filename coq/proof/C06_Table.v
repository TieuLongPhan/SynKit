(** C06 — the monitor of the VF2 contract implies the contract.  If
    [table_ok2 H P t] evaluates to true (second flag of every order-sensitive case) then
    the oracle [lookup_or t H P] that [run_list] and [run_tr_list] hand to [find] satisfies [oracle_ok]:
    the theorems of props/C06.v apply to that run without any assumption about networkx. *)
From Coq Require Import List NArith Bool Arith Lia Permutation SetoidList SetoidPermutation.
From SK Require Import lib.LGraph lib.Mono model.C06_Model lib.C06_Spec proof.C06_All proof.C06_Comps proof.C06_CompSem.
Import ListNotations.

Lemma pair_eqb_spec a b : pair_eqb a b = true <-> a = b.
Proof.
  unfold pair_eqb. rewrite andb_true_iff, !N.eqb_eq. destruct a, b; simpl. split; [intros [-> ->]; reflexivity|intros [= -> ->]; auto].
Qed.

Lemma map_eqb_spec a b : map_eqb a b = true <-> length a = length b /\ incl a b.
Proof.
  unfold map_eqb. rewrite andb_true_iff, Nat.eqb_eq, forallb_forall. split; intros [E I]; split; auto.
  - intros x Ix. specialize (I x Ix). apply existsb_exists in I. destruct I as (y & Iy & Ey).
    apply pair_eqb_spec in Ey. subst. exact Iy.
  - intros x Ix. apply existsb_exists. exists x. split; [apply I; exact Ix|apply pair_eqb_spec; reflexivity].
Qed.

Lemma map_eqb2_perm a b : NoDup b -> map_eqb2 a b = true -> Permutation a b.
Proof.
  intros Hnd E. unfold map_eqb2 in E. apply andb_prop in E. destruct E as [E1 E2].
  apply map_eqb_spec in E1. apply map_eqb_spec in E2. destruct E1 as [El I1], E2 as [_ I2].
  apply NoDup_Permutation; [|exact Hnd|intros x; split; auto].
  apply (NoDup_incl_NoDup Hnd); [lia|exact I2].
Qed.

Lemma remove2_spec x : forall l r, remove2 x l = Some r ->
  exists l1 y l2, l = l1 ++ y :: l2 /\ r = l1 ++ l2 /\ map_eqb2 x y = true.
Proof.
  induction l as [|y l IH]; intros r E; simpl in E; [discriminate|].
  destruct (map_eqb2 x y) eqn:Ex.
  - inversion E; subst. exists [], y, r. auto.
  - destruct (remove2 x l) as [r'|] eqn:Er; [|discriminate]. inversion E; subst.
    destruct (IH r' eq_refl) as (l1 & z & l2 & -> & -> & Ez). exists (y :: l1), z, l2. auto.
Qed.

Lemma is_perm2_spec : forall a b, is_perm2 a b = true ->
  exists b', Permutation b b' /\ Forall2 (fun x y => map_eqb2 x y = true) a b'.
Proof.
  induction a as [|x a IH]; intros b E; simpl in E.
  - destruct b; [|discriminate]. exists []. split; constructor.
  - destruct (remove2 x b) as [r|] eqn:Er; [|discriminate].
    destruct (remove2_spec x b r Er) as (l1 & y & l2 & -> & -> & Ey).
    destruct (IH _ E) as (b' & Hp & HF). exists (y :: b'). split; [|constructor; assumption].
    eapply Permutation_trans; [apply Permutation_sym, Permutation_middle|]. constructor. exact Hp.
Qed.

Lemma same_set_spec a b : same_set a b = true <-> length a = length b /\ incl a b.
Proof.
  unfold same_set. rewrite andb_true_iff, Nat.eqb_eq, forallb_forall. split; intros [E I]; split; auto.
  - intros x Ix. apply LGraph.mem_spec. apply I. exact Ix.
  - intros x Ix. apply LGraph.mem_spec. apply I. exact Ix.
Qed.

Lemma same_set2_mem a b : same_set2 a b = true -> forall x, LGraph.mem x a = LGraph.mem x b.
Proof.
  unfold same_set2. intros E x. apply andb_prop in E. destruct E as [E1 E2].
  apply same_set_spec in E1. apply same_set_spec in E2. destruct E1 as [_ I1], E2 as [_ I2].
  destruct (LGraph.mem x a) eqn:Ea, (LGraph.mem x b) eqn:Eb; auto.
  - apply LGraph.mem_spec in Ea. apply I1 in Ea. apply LGraph.mem_spec in Ea. congruence.
  - apply LGraph.mem_spec in Eb. apply I2 in Eb. apply LGraph.mem_spec in Eb. congruence.
Qed.

(** a sublist of the node list "in node order" is recovered by filtering on membership *)
Definition in_order (nodes l : list N) : Prop := exists g, l = filter g nodes.

Lemma in_order_refilter nodes l : NoDup nodes -> in_order nodes l ->
  filter (fun x => LGraph.mem x l) nodes = l.
Proof.
  intros Hnd (g & ->). apply filter_ext_in. intros x Ix.
  destruct (g x) eqn:Eg.
  - apply LGraph.mem_spec. apply filter_In. auto.
  - rewrite <- not_true_iff_false, LGraph.mem_spec, filter_In. intros [_ E]. congruence.
Qed.

Section Table.
Variables H P : graph.
Hypothesis HwfH : gwf H.
Hypothesis HwfP : gwf P.
Variable t : table.
Hypothesis Hok : table_ok2 H P t = true.

Lemma lookup_opt_in : forall hn pn l, lookup_opt t hn pn = Some l ->
  exists h p, In (h, p, l) t /\ same_set2 h hn = true /\ same_set2 p pn = true.
Proof.
  clear Hok. induction t as [|[[h p] l0] r IH]; intros hn pn l E; simpl in E; [discriminate|].
  destruct (same_set2 h hn && same_set2 p pn) eqn:Es.
  - inversion E; subst. apply andb_prop in Es. exists h, p. split; [left; reflexivity|exact Es].
  - destruct (IH hn pn l E) as (h' & p' & I & S). exists h', p'. split; [right; exact I|exact S].
Qed.

Lemma transfer hn pn l : NoDup hn -> NoDup pn ->
  is_perm2 l (monos_on H P hn pn) = true -> vf2_contract (fun _ _ => l) H P hn pn.
Proof.
  intros Hhn Hpn E. destruct (monos_on_contract H P HwfP hn pn Hhn Hpn) as (S & C & D).
  destruct (is_perm2_spec _ _ E) as (b' & Hp & HF).
  assert (Hb' : forall y, In y b' -> is_mono_on H P hn pn y).
  { intros y I. apply S. eapply Permutation_in; [apply Permutation_sym; exact Hp|exact I]. }
  assert (HF' : Forall2 (@Permutation (N * N)) l b').
  { clear -HF Hb'. induction HF as [|x y a b Exy _ IH]; constructor.
    - apply map_eqb2_perm; [|exact Exy]. destruct (Hb' y (or_introl eq_refl)) as (A & _).
      eapply NoDup_map_inv. exact A.
    - apply IH. intros z I. apply Hb'. right. exact I. }
  split; [|split].
  - intros m I. destruct (Forall2_in_l _ _ _ _ HF' I) as (y & Iy & Hxy).
    eapply is_mono_on_perm; [apply Permutation_sym; exact Hxy|apply Hb'; exact Iy].
  - intros m Hm. destruct (C m Hm) as (y & Iy & Hmy).
    apply (Permutation_in _ Hp) in Iy. destruct (Forall2_in_r _ _ _ _ HF' Iy) as (x & Ix & Hxy).
    exists x. split; [exact Ix|]. eapply Permutation_trans; [exact Hmy|apply Permutation_sym; exact Hxy].
  - assert (Db' : NoDupA (@Permutation (N * N)) b').
    { eapply PermutationA_preserves_NoDupA; [apply Permutation_Equivalence| |exact D].
      apply Permutation_PermutationA; [apply Permutation_Equivalence|exact Hp]. }
    eapply PermutationA_preserves_NoDupA; [apply Permutation_Equivalence| |exact Db'].
    clear -HF'. induction HF' as [|x y a b Exy _ IH]; [constructor|].
    apply permA_skip; [apply Permutation_sym; exact Exy|exact IH].
Qed.

Lemma lookup_or_contract hn pn :
  in_order (node_ids H) hn -> in_order (node_ids P) pn ->
  vf2_contract (lookup_or t H P) H P hn pn.
Proof.
  intros Oh Op.
  assert (Hhn : NoDup hn) by (destruct Oh as (g & ->); apply NoDup_filter; apply HwfH).
  assert (Hpn : NoDup pn) by (destruct Op as (g & ->); apply NoDup_filter; apply HwfP).
  unfold vf2_contract, lookup_or. destruct (lookup_opt t hn pn) as [l|] eqn:El.
  - destruct (lookup_opt_in hn pn l El) as (h & p & I & Sh & Sp).
    unfold table_ok2 in Hok. rewrite forallb_forall in Hok. specialize (Hok _ I). cbv beta iota in Hok.
    rewrite (filter_ext _ _ (same_set2_mem h hn Sh) (node_ids H)) in Hok.
    rewrite (filter_ext _ _ (same_set2_mem p pn Sp) (node_ids P)) in Hok.
    rewrite (in_order_refilter (node_ids H) hn (proj1 HwfH) Oh) in Hok.
    rewrite (in_order_refilter (node_ids P) pn (proj1 HwfP) Op) in Hok.
    exact (transfer hn pn l Hhn Hpn Hok).
  - exact (monos_on_contract H P HwfP hn pn Hhn Hpn).
Qed.

Lemma comps_in_order (g : graph) : gwf g -> forall c, In c (comps g) -> in_order (node_ids g) c.
Proof.
  intros Hg c Ic. destruct (comps_all g Hg) as (A & _). destruct (A c Ic) as (u & _ & ->).
  eexists. reflexivity.
Qed.

Theorem table_ok2_oracle_ok : oracle_ok (lookup_or t H P) H P.
Proof.
  split.
  - apply lookup_or_contract; exists (fun _ => true); symmetry.
    + clear. induction (node_ids H); simpl; congruence.
    + clear. induction (node_ids P); simpl; congruence.
  - intros hc pc Ihc Ipc _. apply lookup_or_contract; apply comps_in_order; assumption.
Qed.
End Table.
