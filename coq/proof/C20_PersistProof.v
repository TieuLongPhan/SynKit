(** C20 — siphon_persistence_condition (model/C20_Persist.v): the verdict is exactly "every reported siphon contains a
    non-empty support", the reported siphons being the minimal siphons characterised in proof/C20_Siphon.v. *)
From Coq Require Import ZArith List.
Import ListNotations.
From SK Require Import model.C20_Model model.C20_Persist proof.C20_Spec proof.C20_Siphon proof.C20_Analyzer proof.C20_Run.
Require SK.lib.Tok.

Lemma nonempty_spec T : nonempty T = true <-> T <> [].
Proof. destruct T; simpl; split; congruence. Qed.

Theorem persistence_verdict_spec siphons supports :
  persistence_verdict siphons supports = true <->
  (forall S, In S siphons -> exists T, In T supports /\ T <> [] /\ incl T S).
Proof.
  unfold persistence_verdict. destruct siphons as [|S0 siphons].
  - split; auto. intros _ S [].
  - destruct (filter nonempty supports) as [|T0 sup] eqn:Ef.
    + split; [discriminate|]. intros H. destruct (H S0 (or_introl eq_refl)) as [T [HT [Hne _]]].
      assert (Hin : In T (filter nonempty supports)) by (apply filter_In; split; auto; now apply nonempty_spec).
      rewrite Ef in Hin. destruct Hin.
    + rewrite <- Ef. rewrite forallb_forall. split.
      * intros H S HS. specialize (H S HS). apply existsb_exists in H as [T [HT Hsub]].
        apply filter_In in HT as [HT Hne]. exists T. split; auto. split; [now apply nonempty_spec|now apply subset_spec].
      * intros H S HS. destruct (H S HS) as [T [HT [Hne Hincl]]]. apply existsb_exists. exists T. split.
        -- apply filter_In. split; auto. now apply nonempty_spec.
        -- now apply subset_spec.
Qed.

(** on the export of a network with species and reactions the function answers, and its answer is the set condition over
    the siphons that find_siphons reports (by find_closed_spec: exactly the minimal non-empty siphons of at most max_size
    members) *)
Theorem persistence_condition_spec n rs max_size supports :
  wf_net n rs -> n <> 0 -> rs <> [] ->
  exists sip b, find_siphons (bipartite_of n rs) max_size = Some sip /\
    siphon_persistence_condition (bipartite_of n rs) max_size supports = Some b /\
    (b = true <-> forall S, In S sip -> exists T, In T supports /\ T <> [] /\ incl T S).
Proof.
  intros _ Hn Hrs. destruct (find_sets_defined is_siphon_indices n rs max_size Hn Hrs) as [sip Hs].
  change (find_siphons (bipartite_of n rs) max_size = Some sip) in Hs.
  exists sip, (persistence_verdict sip supports). split; auto. split.
  - unfold siphon_persistence_condition. now rewrite Hs.
  - apply persistence_verdict_spec.
Qed.

(** non-vacuity: A -> B, B -> A has the single minimal siphon {A, B}; the conservation law A + B (support {0, 1}) lies in
    it; a basis whose only support were {0, 2} would not *)
Example persistence_example :
  let rs := [([(0, 1%Z)], [(1, 1%Z)]); ([(1, 1%Z)], [(0, 1%Z)])] in
  find_siphons (bipartite_of 2 rs) None = Some [[0; 1]] /\
  siphon_persistence_condition (bipartite_of 2 rs) None [[0; 1]] = Some true /\
  siphon_persistence_condition (bipartite_of 2 rs) None [[]; [0; 2]] = Some false /\
  siphon_persistence_condition (bipartite_of 2 rs) None [] = Some false /\
  siphon_persistence_condition (bipartite_of 0 []) None [[0]] = None.
Proof. vm_compute. repeat split; reflexivity. Qed.

(** the observable [run_net_p] (which let-binds the two siphon enumerations to evaluate them once) is [run_net] followed by the two
    verdicts of [siphon_persistence_condition] *)
Lemma run_net_p_is_run_net n rs und k cands order sup :
  run_net_p n rs und k cands order sup =
  let G0 := with_species_order order (bipartite_of n rs) in
  let G := if und then orient_undirected (undirected_view G0) else G0 in
  match run_net n rs und k cands order with
  | SK.lib.Tok.L l => if split_ok G then SK.lib.Tok.L (l ++ [SK.lib.Tok.L [SK.lib.Tok.topt SK.lib.Tok.tbool (siphon_persistence_condition G None sup);
                                                      SK.lib.Tok.topt SK.lib.Tok.tbool (siphon_persistence_condition G (Some k) sup)]]) else SK.lib.Tok.L l
  | t => t
  end.
Proof.
  unfold run_net_p, run_graph_p, run_net, siphon_persistence_condition, persistence_of. cbv zeta.
  destruct (split_ok _); reflexivity.
Qed.

Fixpoint base_ops (ops : list anp_op) : list an_op :=
  match ops with
  | [] => []
  | PBase o :: r => o :: base_ops r
  | PCheck _ :: r => base_ops r
  | PAll _ :: r => AnCompute :: base_ops r
  end.

(** the network and the supports of the last successful check_persistence / compute_all ([acc] before the calls) *)
Fixpoint checked_for (cur : network) (acc : option (network * list (list nat))) (ops : list anp_op)
  : option (network * list (list nat)) :=
  match ops with
  | [] => acc
  | PBase (AnEdit n) :: r => checked_for n acc r
  | PBase _ :: r => checked_for cur acc r
  | PCheck sup :: r => checked_for cur (if computable cur then Some (cur, sup) else acc) r
  | PAll sup :: r => checked_for cur (if computable cur then Some (cur, sup) else acc) r
  end.

Definition persist_of (k : option nat) (acc : option (network * list (list nat))) : option bool :=
  match acc with
  | None => None
  | Some (net, sup) => siphon_persistence_condition (bipartite_of (fst net) (snd net)) k sup
  end.

(** a check on a network with species and reactions stores its verdict; otherwise it raises and the field keeps its value *)
Lemma anp_check_spec k st sup :
  fst (anp_check k st sup) =
  let net := an_net (anp_base st) in
  ANP (anp_base st) (if computable net then siphon_persistence_condition (bipartite_of (fst net) (snd net)) k sup
                     else anp_persist st).
Proof.
  unfold anp_check, siphon_persistence_condition, computable, find_siphons, find_sets. cbv zeta.
  destruct (split_ok _); [reflexivity|]. now destruct st.
Qed.

Lemma anp_step_inv k st op acc :
  anp_persist st = persist_of k acc ->
  anp_base (fst (anp_step k st op)) = an_exec k (anp_base st) (base_ops [op]) /\
  anp_persist (fst (anp_step k st op)) = persist_of k (checked_for (an_net (anp_base st)) acc [op]).
Proof.
  intros H. destruct op as [op|sup|sup]; cbn [anp_step base_ops checked_for].
  - destruct op as [| |n].
    + destruct (an_step k (anp_base st) AnCompute) as [b a] eqn:E. cbn [fst anp_base anp_persist].
      split; [|exact H]. unfold an_exec. cbn [fold_left]. now rewrite E.
    + split; [reflexivity|exact H].
    + destruct (an_step k (anp_base st) (AnEdit n)) as [b a] eqn:E. cbn [fst anp_base anp_persist].
      split; [|exact H]. unfold an_exec. cbn [fold_left]. now rewrite E.
  - rewrite anp_check_spec. cbn [anp_base anp_persist]. split; [reflexivity|].
    destruct (computable _); [reflexivity|exact H].
  - unfold an_exec. cbn [fold_left]. rewrite an_compute_spec. cbv zeta.
    destruct (computable (an_net (anp_base st))) eqn:Ec; [|split; [reflexivity|exact H]].
    rewrite anp_check_spec. cbn [anp_base anp_persist an_net]. rewrite Ec. split; reflexivity.
Qed.

Lemma an_exec_app k ops1 : forall st ops2, an_exec k st (ops1 ++ ops2) = an_exec k (an_exec k st ops1) ops2.
Proof. intros. unfold an_exec. apply fold_left_app. Qed.

Lemma last_net_single cur op : last_net cur [op] = match op with AnEdit n => n | _ => cur end.
Proof. destruct op; reflexivity. Qed.

Lemma anp_exec_inv k ops : forall st acc,
  anp_persist st = persist_of k acc ->
  anp_base (anp_exec k st ops) = an_exec k (anp_base st) (base_ops ops) /\
  anp_persist (anp_exec k st ops) = persist_of k (checked_for (an_net (anp_base st)) acc ops).
Proof.
  induction ops as [|op ops IH]; intros st acc H; [split; [reflexivity|exact H]|].
  change (anp_exec k st (op :: ops)) with (anp_exec k (fst (anp_step k st op)) ops).
  destruct (anp_step_inv k st op acc H) as [Hb Hp].
  destruct (IH _ _ Hp) as [Hb' Hp'].
  split.
  - rewrite Hb', Hb. destruct op as [o|sup|sup]; reflexivity.
  - rewrite Hp', Hb, an_exec_net. destruct op as [[]|sup|sup]; reflexivity.
Qed.

(** after ANY history of compute / check / compute_all / read / edit calls on one analyzer: the siphon / trap fields are those of the
    base machine run on the projected history (so [main_analyzer_no_stale] applies to them), and the stored persistence verdict is
    exactly the verdict for the network AS IT WAS at the last successful check (with the semiflow supports computed then) — never an
    earlier one, never one for a network edited since *)
Theorem anp_no_stale k net0 ops :
  let st := anp_exec k (ANP (AN net0 None None) None) ops in
  anp_base st = an_exec k (AN net0 None None) (base_ops ops) /\
  anp_persist st = match checked_for net0 None ops with
                   | None => None
                   | Some (net, sup) => siphon_persistence_condition (bipartite_of (fst net) (snd net)) k sup
                   end.
Proof. intros st. exact (anp_exec_inv k ops (ANP (AN net0 None None) None) None eq_refl). Qed.

Lemma anp_run_eq k ops : forall st, anp_run k st ops = run (anp_step k) snd st ops.
Proof.
  induction ops as [|op ops IH]; intros st; simpl; [reflexivity|].
  destruct (anp_step k st op). simpl. now rewrite IH.
Qed.

Theorem anp_read k st ops1 ops2 :
  nth_error (anp_run k st (ops1 ++ PBase AnRead :: ops2)) (length ops1) =
  Some (let s := anp_exec k st ops1 in PRead (an_siphons (anp_base s)) (an_traps (anp_base s)) (anp_persist s)).
Proof. rewrite anp_run_eq. apply (run_nth (anp_step k) snd). Qed.

(** non-vacuity: A -> B checked (siphon {A}; the only conservation law has support {A, B}, not inside {A}: False); B -> A added to
    the same network: a read still shows False; compute_all on the edited network stores True *)
Example ex_analyzer_persistence :
  anp_run None (ANP (AN exa_net1 None None) None)
          [PBase AnRead; PCheck [[0; 1]]; PBase AnRead; PBase (AnEdit exa_net2); PBase AnRead; PAll [[0; 1]]; PBase AnRead] =
  [PRead None None None; PDone; PRead None None (Some false); PDone; PRead None None (Some false); PDone;
   PRead (Some [[0; 1]]) (Some [[0; 1]]) (Some true)].
Proof. vm_compute. reflexivity. Qed.
