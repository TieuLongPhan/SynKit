(** C09 — the graph-level core of NormalizeAAM.fit does not change whether the reaction is balanced: every element count (hydrogens
    included) and the total charge of each side are kept by implicit_hydrogen.  From C01: implicit_hydrogen_spec,
    ih_node_ids, hydrogen_balance. *)
From Coq Require Import List NArith ZArith Bool Lia.
From SK Require Import lib.LGraph lib.C01_GraphLemmas model.C01_Model model.C02_Model model.C01_String model.C01_HBal
  model.C09_Model model.C09_Normalize proof.C01_StringHyd proof.C01_StringPipeH proof.C01_HBalProof proof.C09_Canon proof.C09_Balance.
From SK Require proof.C09_Normalize proof.C09_Main proof.C01_PremProof.
Import ListNotations.
Local Open Scope Z_scope.

(** a weighted count over the atoms, read through [label] *)
Definition wl (w : gnode -> Z) (g : mgraph) (n : N) : Z := match label g n with Some a => w a | None => 0 end.
Definition wsum (w : gnode -> Z) (g : mgraph) : Z := sumZ (wl w g) (node_ids g).

Lemma sumZ_map {X Y} (f : Y -> Z) (h : X -> Y) l : sumZ f (map h l) = sumZ (fun x => f (h x)) l.
Proof. induction l as [|x l IH]; [reflexivity|]. cbn [map]. rewrite !sumZ_cons, IH. reflexivity. Qed.

Lemma wsum_nodes (w : gnode -> Z) (g : mgraph) : NoDup (node_ids g) -> wsum w g = sumZ (fun p : N * gnode => w (snd p)) (gnodes g).
Proof.
  intros Hnd. unfold wsum, node_ids. rewrite sumZ_map. apply sumZ_ext_in. intros p I.
  unfold wl. rewrite (in_gnodes_label g p Hnd I). reflexivity.
Qed.

Definition w_el (e : N) (a : gnode) : Z := (if N.eqb (g_el a) e then 1 else 0) + (if N.eqb e EL_H then g_hc a else 0).
Lemma el_count_sum e (g : mgraph) : el_count e g = sumZ (fun p : N * gnode => w_el e (snd p)) (gnodes g).
Proof.
  unfold el_count. induction (gnodes g) as [|p l IH]; [reflexivity|]. cbn [fold_right]. rewrite sumZ_cons, IH. unfold w_el. lia.
Qed.
Lemma total_charge_sum (g : mgraph) : total_charge g = sumZ (fun p : N * gnode => g_ch (snd p)) (gnodes g).
Proof.
  unfold total_charge. induction (gnodes g) as [|p l IH]; [reflexivity|]. cbn [fold_right]. rewrite sumZ_cons, IH. lia.
Qed.

Section Side.
Variable g : mgraph.
Variable pres : list Z.
Hypothesis W : wf g.

(** a weight that does not read hcount and vanishes on the removed hydrogens is conserved *)
Lemma ih_wsum (w : gnode -> Z) :
  (forall a h, w (set_hc a h) = w a) ->
  (forall n a, label g n = Some a -> ih_removed g pres n = true -> w a = 0) ->
  wsum w (implicit_hydrogen g pres) = wsum w g.
Proof.
  intros Hhc Hrem. destruct (implicit_hydrogen_spec g pres W) as (HL & _ & _).
  unfold wsum. rewrite ih_node_ids, sumZ_filter. apply sumZ_ext_in. intros n In_.
  apply node_label_some in In_. destruct In_ as (a & La). unfold wl. rewrite HL, La.
  pose proof (Hrem n a La) as Hr. unfold ih_removed, is_Hn in *. rewrite La in *. fold (is_H a) in *.
  destruct (is_H a) eqn:Ha; cbn [andb negb] in *.
  - destruct (mem n (preserved g pres)); cbn [andb negb orb] in *; [reflexivity|].
    destruct (has_heavy g n); cbn [negb] in *; [rewrite Hr; reflexivity|reflexivity].
  - rewrite Hhc. reflexivity.
Qed.

(** hydrogens bonded to a heavy atom are neutral and carry no hydrogens of their own (always so for RDKit readings) *)
Definition h_plain : Prop :=
  forall n a, label g n = Some a -> is_H a = true -> g_hc a = 0 /\ (has_heavy g n = true -> g_ch a = 0).

Lemma removed_is_H n a : label g n = Some a -> ih_removed g pres n = true -> is_H a = true /\ has_heavy g n = true.
Proof.
  intros La R. unfold ih_removed, is_Hn in R. rewrite La in R. fold (is_H a) in R.
  apply andb_true_iff in R. destruct R as [R R2]. apply andb_true_iff in R. destruct R as [R _]. auto.
Qed.

Lemma ih_el_count_heavy e : e <> EL_H -> el_count e (implicit_hydrogen g pres) = el_count e g.
Proof.
  intros He. pose proof (ih_wf g pres W) as W'.
  rewrite !el_count_sum, <- !wsum_nodes by (apply W || apply W').
  apply ih_wsum.
  - intros a h. unfold w_el. cbn [set_hc g_el g_hc]. destruct (N.eqb_spec e EL_H); [contradiction|reflexivity].
  - intros n a La R. destruct (removed_is_H n a La R) as (Ha & _). unfold is_H in Ha. apply N.eqb_eq in Ha.
    unfold w_el. rewrite Ha. destruct (N.eqb_spec EL_H e); [congruence|]. destruct (N.eqb_spec e EL_H); [contradiction|reflexivity].
Qed.

Lemma ih_total_charge : h_plain -> total_charge (implicit_hydrogen g pres) = total_charge g.
Proof.
  intros HP. pose proof (ih_wf g pres W) as W'.
  rewrite !total_charge_sum, <- !wsum_nodes by (apply W || apply W').
  apply ih_wsum.
  - intros a h. reflexivity.
  - intros n a La R. destruct (removed_is_H n a La R) as (Ha & Hh). apply (HP n a La Ha). exact Hh.
Qed.

(** hydrogens: el_count H = C01's h_total when hydrogen atoms carry no hydrogens of their own *)
Lemma el_count_H_total (x : mgraph) : NoDup (node_ids x) ->
  (forall n a, label x n = Some a -> is_H a = true -> g_hc a = 0) -> el_count EL_H x = h_total x.
Proof.
  intros Hnd HP. rewrite el_count_sum, <- wsum_nodes by exact Hnd. unfold wsum, h_total. apply sumZ_ext_in. intros n In_.
  unfold wl, h_weight. destruct (label x n) as [a|] eqn:La; [|reflexivity].
  unfold w_el. rewrite N.eqb_refl. fold (is_H a). destruct (is_H a) eqn:Ha; [rewrite (HP n a La Ha)|]; lia.
Qed.

Lemma ih_el_count_H : one_parent g -> h_plain -> el_count EL_H (implicit_hydrogen g pres) = el_count EL_H g.
Proof.
  intros OP HP. pose proof (ih_wf g pres W) as W'. destruct (implicit_hydrogen_spec g pres W) as (HL & _ & _).
  rewrite (el_count_H_total g) by (apply W || (intros n a La Ha; apply (HP n a La Ha))).
  rewrite (el_count_H_total (implicit_hydrogen g pres)).
  - apply (hydrogen_balance g pres W OP).
  - apply W'.
  - intros n a' La' Ha'. rewrite HL in La'. destruct (label g n) as [a|] eqn:La; [|discriminate].
    destruct (is_H a) eqn:Ha.
    + destruct (mem n (preserved g pres) || negb (has_heavy g n))%bool; [|discriminate]. injection La' as <-. apply (HP n a La Ha).
    + injection La' as <-. unfold is_H in *. cbn [set_hc g_el] in Ha'. congruence.
Qed.

Theorem ih_counts : one_parent g -> h_plain ->
  (forall e, el_count e (implicit_hydrogen g pres) = el_count e g) /\ total_charge (implicit_hydrogen g pres) = total_charge g.
Proof.
  intros OP HP. split; [|apply ih_total_charge; exact HP].
  intros e. destruct (N.eq_dec e EL_H) as [->|He]; [apply ih_el_count_H; assumption|apply ih_el_count_heavy; exact He].
Qed.
End Side.

(** NormalizeAAM.fit (graph-level core) keeps the verdict of the balance check *)
Theorem normalize_keeps_balance (G H : mgraph) :
  wf G -> wf H -> one_parent G -> one_parent H -> h_plain G -> h_plain H ->
  balancedb (fst (normalize_core G H)) (snd (normalize_core G H)) = balancedb G H.
Proof.
  intros WG WH OG OH PG PH. unfold normalize_core. cbn [fst snd]. set (lh := list_hydrogen G H).
  destruct (ih_counts G lh WG OG PG) as (EG & CG). destruct (ih_counts H lh WH OH PH) as (EH & CH).
  apply Bool.eq_iff_eq_true. rewrite !balance_iff. split; intros (A & B); split.
  - intros e. rewrite <- EG, <- EH. apply A.
  - rewrite <- CG, <- CH. exact B.
  - intros e. rewrite EG, EH. apply A.
  - rewrite CG, CH. exact B.
Qed.

(** an executable test of [h_plain], for concrete graphs *)
Lemma h_plain_by_test (g : mgraph) :
  forallb (fun p : N * gnode => implb (is_H (snd p)) (Z.eqb (g_hc (snd p)) 0 && implb (has_heavy g (fst p)) (Z.eqb (g_ch (snd p)) 0)))
          (gnodes g) = true -> h_plain g.
Proof.
  intros F n a La Ha. rewrite forallb_forall in F. specialize (F _ (assoc_in _ _ La)). cbn [fst snd] in F.
  rewrite Ha in F. cbn [implb] in F. apply andb_true_iff in F. destruct F as [F1 F2].
  split; [apply Z.eqb_eq; exact F1|]. intros Hh. rewrite Hh in F2. apply Z.eqb_eq. exact F2.
Qed.

(** non-vacuity: the toy reaction of C09_Normalize (one reacting and one spectator explicit hydrogen) satisfies every hypothesis *)
Example ex_norm_balance :
  wf SK.proof.C09_Normalize.ex_NG /\ wf SK.proof.C09_Normalize.ex_NH /\ one_parent SK.proof.C09_Normalize.ex_NG /\ one_parent SK.proof.C09_Normalize.ex_NH /\
  h_plain SK.proof.C09_Normalize.ex_NG /\ h_plain SK.proof.C09_Normalize.ex_NH /\
  balancedb (fst (normalize_core SK.proof.C09_Normalize.ex_NG SK.proof.C09_Normalize.ex_NH)) (snd (normalize_core SK.proof.C09_Normalize.ex_NG SK.proof.C09_Normalize.ex_NH)) = true /\
  gnodes (fst (normalize_core SK.proof.C09_Normalize.ex_NG SK.proof.C09_Normalize.ex_NH)) <> gnodes SK.proof.C09_Normalize.ex_NG.
Proof.
  split; [apply (C09_Main.parsedb_sound SK.proof.C09_Normalize.ex_NG); reflexivity|].
  split; [apply (C09_Main.parsedb_sound SK.proof.C09_Normalize.ex_NH); reflexivity|].
  split; [apply C01_PremProof.one_parentb_spec; reflexivity|]. split; [apply C01_PremProof.one_parentb_spec; reflexivity|].
  split; [apply h_plain_by_test; reflexivity|]. split; [apply h_plain_by_test; reflexivity|].
  split; [vm_compute; reflexivity|]. vm_compute. discriminate.
Qed.
