(** C03 — _explicit_h never raises on a graph glued from a rule that was prepared in the default mode from a template
    satisfying [tpl_condition] (templates with the same element on both sides of every atom): every hydrogen-transfer group
    is EXACT — as many hydrogens to give as to take.

    T-level: a hydrogen LEDGER of an ITS graph (one entry per migrating hydrogen: the atoms it leaves, the atoms it joins).
    If the ledger accounts for every atom's hydrogen change, the atoms of one entry carry a common pair id, and every entry
    leaves as many atoms as it joins, then the sum of the hydrogen changes over every group is 0 ([ledger_sound]).
    Instantiation: the removed hydrogens of the template, with the images under the match of the kept non-hydrogen atoms
    they are bonded to on the left / right side ([default_glued_exact]). *)
From Coq Require Import List NArith ZArith Bool Lia Permutation.
From SK Require Import lib.Tok lib.LGraph model.C03_Model model.C03_Order proof.C03_Proof proof.C03_Glue proof.C03_Backward proof.C03_Skeleton
                       proof.C03_ExplicitH proof.C03_ExplicitTotal proof.C03_Wiring proof.C03_WiringCount proof.C03_PairIds
                       proof.C03_StripCounts proof.C03_StripExact proof.C03_StripCor proof.C03_PairIdsComplete proof.C03_Ord
                       model.C03_Reactor proof.C03_ReactorSpec.
Import ListNotations.
Local Open Scope Z_scope.


Lemma sumF_add (f g : N -> Z) l : sumF (fun n => f n + g n) l = sumF f l + sumF g l.
Proof. induction l as [|a r IH]; simpl; lia. Qed.
Lemma sumF_sub (f g : N -> Z) l : sumF (fun n => f n - g n) l = sumF f l - sumF g l.
Proof. induction l as [|a r IH]; simpl; lia. Qed.
Lemma sumF_zero l : sumF (fun _ => 0) l = 0.
Proof. induction l; simpl; lia. Qed.
Lemma sumF_ext (f g : N -> Z) l : (forall n, In n l -> f n = g n) -> sumF f l = sumF g l.
Proof. induction l as [|a r IH]; simpl; intros H; [reflexivity|]. rewrite (H a (or_introl eq_refl)), IH; auto. Qed.

(** how many atoms of [l] lie in the duplicate-free list [c] = the sum over c of their multiplicities in l *)
Lemma sum_indicator c x : NoDup c -> sumF (fun n => if N.eqb n x then 1 else 0) c = if mem x c then 1 else 0.
Proof.
  induction 1 as [|a r Ha _ IH]; simpl; [reflexivity|]. rewrite IH. unfold mem at 2. simpl.
  destruct (N.eqb_spec a x) as [->|Ne].
  - rewrite N.eqb_refl. simpl. destruct (mem x r) eqn:E; [apply mem_spec in E; contradiction|reflexivity].
  - destruct (N.eqb_spec x a); [congruence|]. simpl. fold (mem x r). lia.
Qed.
Lemma sum_occurrences c l : NoDup c -> sumF (fun n => occurrences n l) c = Z.of_nat (length (filter (fun x => mem x c) l)).
Proof.
  intros Hc. induction l as [|x r IH]; [simpl; apply sumF_zero|].
  rewrite (sumF_ext _ (fun n => (if N.eqb n x then 1 else 0) + occurrences n r)) by (intros; apply occurrences_cons).
  rewrite sumF_add, IH, (sum_indicator c x Hc). simpl. destruct (mem x c); simpl length; lia.
Qed.

Lemma filter_all {A} (f : A -> bool) l : (forall x, In x l -> f x = true) -> filter f l = l.
Proof. induction l as [|a r IH]; simpl; intros H; [reflexivity|]. rewrite (H a (or_introl eq_refl)), IH; auto. Qed.
Lemma filter_none {A} (f : A -> bool) l : (forall x, In x l -> f x = false) -> filter f l = [].
Proof. induction l as [|a r IH]; simpl; intros H; [reflexivity|]. rewrite (H a (or_introl eq_refl)), IH; auto. Qed.

Section Ledger.
  Variables (T : its) (lg : ledger).
  Hypothesis Hdl : forall n, dl_of T n = ledger_dl lg n.
  Hypothesis Hcl : forall h c, In h lg -> In c (components (pair_to_nodes T)) ->
    (forall x, In x (fst h ++ snd h) -> In x c) \/ (forall x, In x (fst h ++ snd h) -> ~ In x c).
  Hypothesis Hlen : forall h, In h lg -> length (fst h) = length (snd h).

  Lemma comp_sum_zero c : In c (components (pair_to_nodes T)) -> NoDup c -> sumF (dl_of T) c = 0.
  Proof.
    intros Ic Hc. rewrite (sumF_ext _ (ledger_dl lg)) by (intros; apply Hdl).
    assert (G : forall l, (forall h, In h l -> In h lg) -> sumF (ledger_dl l) c = 0).
    { induction l as [|h r IH]; intros Hs; [simpl; apply sumF_zero|].
      unfold ledger_dl; cbn [fold_right]. fold (ledger_dl r).
      rewrite (sumF_add (fun n => occurrences n (fst h) - occurrences n (snd h)) (ledger_dl r)), sumF_sub, !sum_occurrences by exact Hc.
      rewrite IH by (intros; apply Hs; right; assumption).
      assert (Ih : In h lg) by (apply Hs; left; reflexivity).
      destruct (Hcl h c Ih Ic) as [A|A].
      - rewrite !filter_all; [rewrite (Hlen h Ih); lia| |]; intros x I; apply mem_spec; apply A; apply in_or_app; auto.
      - rewrite !filter_none; [simpl; lia| |]; intros x I; apply Bool.not_true_is_false; intros E; apply mem_spec in E; apply (A x); auto; apply in_or_app; auto. }
    apply G. auto.
  Qed.

  Lemma sumF_split (f : N -> Z) l :
    sumF f l = sumF f (filter (fun n => 0 <? f n) l) - sumF (fun n => - f n) (filter (fun n => f n <? 0) l).
  Proof.
    induction l as [|a r IH]; simpl; [reflexivity|]. rewrite IH.
    destruct (Z.ltb_spec 0 (f a)), (Z.ltb_spec (f a) 0); simpl; lia.
  Qed.

  Theorem ledger_pairs_exact : pairs_exactb T = true /\ pairs_okb T = true.
  Proof.
    pose proof (components_good _ (pair_to_nodes_nodup T)) as [G1 _]. rewrite Forall_forall in G1.
    assert (K : forall c, In c (components (pair_to_nodes T)) -> comp_exactb T (sort_N c) = true).
    { intros c Ic. pose proof (G1 c Ic) as Hc.
      assert (P : Permutation (sort_N c) c).
      { apply NoDup_Permutation; [apply nodup_sort_N; exact Hc|exact Hc|]. intros x. apply in_sort_N_iff. }
      rewrite (comp_exactb_perm T _ _ P). unfold comp_exactb. apply Z.eqb_eq.
      pose proof (comp_sum_zero c Ic Hc) as Z0. rewrite (sumF_split (dl_of T) c) in Z0. lia. }
    split.
    - unfold pairs_exactb. apply forallb_forall. exact K.
    - unfold pairs_okb. apply forallb_forall. intros c Ic. specialize (K c Ic). unfold comp_exactb in K. apply Z.eqb_eq in K.
      unfold comp_balancedb. apply Z.leb_le. lia.
  Qed.

  Theorem ledger_nocrash ord : (forall l x, In x (ord l) <-> In x l) -> (forall l, NoDup l -> NoDup (ord l)) ->
    explicit_h_ord ord T <> None.
  Proof.
    intros Hin Hnd C. apply (explicit_h_ord_crash_iff ord Hin Hnd T) in C. rewrite (proj2 ledger_pairs_exact) in C. discriminate.
  Qed.
End Ledger.

(** atoms that carry a common pair id lie in the same component; components are pairwise disjoint *)
Lemma pt_add_keys pt pid n : NoDup (map fst pt) -> NoDup (map fst (pt_add pt pid n)).
Proof.
  induction pt as [|[q ns] r IH]; simpl; intros H; [repeat constructor; intros []|].
  inversion H as [|? ? H1 H2]; subst. destruct (N.eqb_spec q pid) as [->|Ne]; simpl; [constructor; assumption|].
  constructor; [|apply IH; exact H2]. intros I. apply H1.
  clear - I Ne. induction r as [|[q' ns'] r IH]; simpl in *; [destruct I as [E|[]]; congruence|].
  destruct (N.eqb q' pid); simpl in *; [exact I|]. destruct I as [E|I]; [left; exact E|right; apply IH; exact I].
Qed.
Lemma pair_to_nodes_keys T : NoDup (map fst (pair_to_nodes T)).
Proof. apply (pair_to_nodes_inv (fun pt => NoDup (map fst pt))); [constructor|]. intros pt pid k A _ _. apply pt_add_keys. Qed.
Lemma nodup_keys_same {V} (l : list (N * V)) k v v' : NoDup (map fst l) -> In (k, v) l -> In (k, v') l -> v = v'.
Proof.
  induction l as [|[k0 v0] r IH]; simpl; intros H I I'; [destruct I|]. inversion H as [|? ? H1 H2]; subst.
  destruct I as [I|I], I' as [I'|I'].
  - congruence.
  - inversion I; subst. exfalso. apply H1. change k with (fst (k, v')). apply in_map. exact I'.
  - inversion I'; subst. exfalso. apply H1. change k with (fst (k, v)). apply in_map. exact I.
  - exact (IH H2 I I').
Qed.

Lemma common_pid_closed T (l : list N) p c :
  (forall x, In x l -> exists A, In (x, A) (gnodes T) /\ In p (hp_of A)) ->
  In c (components (pair_to_nodes T)) ->
  (forall x, In x l -> In x c) \/ (forall x, In x l -> ~ In x c).
Proof.
  intros Hp Ic.
  destruct l as [|x0 r]; [left; intros x []|].
  destruct (Hp x0 (or_introl eq_refl)) as (A0 & I0 & P0).
  destruct (pair_to_nodes_complete T x0 A0 p I0 P0) as (ns & Ins & Ix0).
  destruct (components_cover _ (p, ns) Ins) as (c0 & Ic0 & S0). cbn [snd] in S0.
  assert (All : forall x, In x (x0 :: r) -> In x c0).
  { intros x Ix. destruct (Hp x Ix) as (A & IA & PA). destruct (pair_to_nodes_complete T x A p IA PA) as (ns' & Ins' & Ix').
    rewrite (nodup_keys_same _ p ns' ns (pair_to_nodes_keys T) Ins' Ins) in Ix'. apply S0. exact Ix'. }
  pose proof (components_good _ (pair_to_nodes_nodup T)) as [_ G2].
  assert (Same : forall x, In x c0 -> In x c -> c = c0).
  { intros x X0 X. destruct (ForallOrdPairs_In G2 c c0 Ic Ic0) as [E|[D|D]]; [exact E| |]; exfalso; [exact (D x X X0)|exact (D x X0 X)]. }
  destruct (in_dec N.eq_dec x0 c) as [Y|Nn].
  - left. intros x Ix. rewrite (Same x0 (All x0 (or_introl eq_refl)) Y). apply All. exact Ix.
  - right. intros x Ix X. apply Nn. rewrite (Same x (All x Ix) X). apply All. left. reflexivity.
Qed.

(** the T-level theorem with the "common pair id" form of closedness *)
Theorem ledger_sound T (lg : ledger) :
  (forall n, dl_of T n = ledger_dl lg n) ->
  (forall h, In h lg -> exists p, forall x, In x (fst h ++ snd h) -> exists A, In (x, A) (gnodes T) /\ In p (hp_of A)) ->
  (forall h, In h lg -> length (fst h) = length (snd h)) ->
  pairs_exactb T = true /\ pairs_okb T = true /\
  forall ord, (forall l x, In x (ord l) <-> In x l) -> (forall l, NoDup l -> NoDup (ord l)) -> explicit_h_ord ord T <> None.
Proof.
  intros H1 H2 H3.
  assert (Hcl : forall h c, In h lg -> In c (components (pair_to_nodes T)) ->
            (forall x, In x (fst h ++ snd h) -> In x c) \/ (forall x, In x (fst h ++ snd h) -> ~ In x c)).
  { intros h c Ih Ic. destruct (H2 h Ih) as (p & Hp). exact (common_pid_closed T _ p c Hp Ic). }
  destruct (ledger_pairs_exact T lg H1 Hcl H3) as [A B]. split; [exact A|]. split; [exact B|].
  intros ord Hin Hnd. exact (ledger_nocrash T lg H1 Hcl H3 ord Hin Hnd).
Qed.

(** images of a weighted list of rule atoms under the match *)
Definition imgs (m : mapping) (w : N -> Z) (K : list N) : list N :=
  flat_map (fun k => match mget m k with Some x => repeat x (Z.to_nat (w k)) | None => [] end) K.

Lemma occurrences_repeat x y n : occurrences x (repeat y n) = if N.eqb x y then Z.of_nat n else 0.
Proof.
  induction n as [|n IH]; simpl repeat; [destruct (N.eqb x y); reflexivity|].
  rewrite occurrences_cons, IH. destruct (N.eqb x y); lia.
Qed.

Lemma occ_imgs_other m w K x : (forall k, In k K -> mget m k <> Some x) -> occurrences x (imgs m w K) = 0.
Proof.
  unfold imgs. induction K as [|k r IH]; intros H; [reflexivity|]. cbn [flat_map]. rewrite occurrences_app, IH by (intros; apply H; right; assumption).
  destruct (mget m k) as [y|] eqn:E; [|reflexivity]. rewrite occurrences_repeat.
  destruct (N.eqb_spec x y) as [->|]; [exfalso; exact (H k (or_introl eq_refl) E)|reflexivity].
Qed.

Lemma occ_imgs m w K k0 x0 : NoDup K -> In k0 K -> mget m k0 = Some x0 -> 0 <= w k0 ->
  (forall k, In k K -> mget m k = Some x0 -> k = k0) -> occurrences x0 (imgs m w K) = w k0.
Proof.
  unfold imgs. induction K as [|k r IH]; intros Hnd I E Hw Hinj; [destruct I|]. inversion Hnd as [|? ? N1 N2]; subst.
  cbn [flat_map]. rewrite occurrences_app. destruct I as [->|I].
  - rewrite E, occurrences_repeat, N.eqb_refl.
    fold (imgs m w r). rewrite (occ_imgs_other m w r x0).
    + rewrite Z2Nat.id by exact Hw. lia.
    + intros k Ik Ek. apply N1. rewrite (Hinj k (or_intror Ik) Ek) in Ik. exact Ik.
  - rewrite (IH N2 I E Hw) by (intros; apply Hinj; [right; assumption|assumption]).
    destruct (mget m k) as [y|] eqn:Ek; [|reflexivity]. rewrite occurrences_repeat.
    destruct (N.eqb_spec x0 y) as [->|]; [|lia]. exfalso. apply N1. rewrite (Hinj k (or_introl eq_refl) Ek). exact I.
Qed.

Lemma length_imgs m w K : (forall k, In k K -> exists x, mget m k = Some x) ->
  Z.of_nat (length (imgs m w K)) = fold_right (fun k acc => Z.of_nat (Z.to_nat (w k)) + acc) 0 K.
Proof.
  unfold imgs. induction K as [|k r IH]; intros H; [reflexivity|]. cbn [flat_map fold_right]. rewrite app_length, Nat2Z.inj_add, IH by (intros; apply H; right; assumption).
  destruct (H k (or_introl eq_refl)) as [x ->]. rewrite repeat_length. reflexivity.
Qed.

(** sums over the removed hydrogens *)
Lemma ledger_dl_map (R : list N) (A B : N -> list N) n :
  ledger_dl (map (fun h => (A h, B h)) R) n = fold_right (fun h acc => occurrences n (A h) - occurrences n (B h) + acc) 0 R.
Proof. induction R as [|h r IH]; simpl; [reflexivity|]. unfold ledger_dl in *. cbn [fold_right map fst snd]. rewrite IH. reflexivity. Qed.

Lemma sum_cnt_diff esL esR R k :
  sum_cnt esL R k - sum_cnt esR R k = fold_right (fun h acc => cnt esL h k - cnt esR h k + acc) 0 R.
Proof. induction R as [|h r IH]; simpl; [reflexivity|]. unfold sum_cnt in *. cbn [fold_right]. lia. Qed.

Lemma in_imgs m w K x : In x (imgs m w K) -> exists k, In k K /\ mget m k = Some x /\ 0 < w k.
Proof.
  unfold imgs. intros I. apply in_flat_map in I. destruct I as (k & Ik & Ix). exists k. split; [exact Ik|].
  destruct (mget m k) as [y|]; [|destruct Ix]. apply repeat_spec in Ix as E. subst y. split; [reflexivity|].
  destruct (Z.to_nat (w k)) eqn:En; [destruct Ix|]. lia.
Qed.

Lemma cnt_pos_nbrs sn se tpl h k : simple_edgesb (gedges tpl) = true ->
  0 < cnt (gedges (side0 sn se tpl)) h k -> In k (nbrs tpl h).
Proof.
  intros Hs H. unfold cnt in H.
  destruct (filter (fun e : N * N * Z => peq (fst (fst e)) (snd (fst e)) h k) (gedges (side0 sn se tpl))) as [|e r] eqn:E; [simpl in H; lia|].
  assert (Ie : In e (filter (fun e : N * N * Z => peq (fst (fst e)) (snd (fst e)) h k) (gedges (side0 sn se tpl)))) by (rewrite E; left; reflexivity).
  apply filter_In in Ie. destruct Ie as [Ie Pe]. rewrite side0_edges in Ie. apply in_flat_map in Ie.
  destruct Ie as ([[u v] x] & It & Ix). destruct (0 <? se x); [|destruct Ix]. destruct Ix as [<-|[]]. cbn [fst snd] in Pe.
  pose proof (simple_edges_ne (gedges tpl) u v x Hs It) as Ne.
  apply nbrs_in. exists (u, v, x). split; [exact It|]. cbn [fst snd]. apply peq_spec in Pe. destruct Pe as [[-> ->]|[-> ->]].
  - left. auto.
  - right. repeat split; auto.
Qed.

Lemma sum_cnt_countZ sn se tpl h K : simple_edgesb (gedges tpl) = true ->
  fold_right (fun k acc => Z.of_nat (Z.to_nat (cnt (gedges (side0 sn se tpl)) h k)) + acc) 0 K = countZ (fun k => bonded se tpl k h) K.
Proof.
  intros Hs. unfold countZ. induction K as [|k r IH]; [reflexivity|]. cbn [fold_right filter]. rewrite IH, (cnt_indicator sn se tpl h k Hs).
  unfold bonded. destruct (match adj tpl k h with Some x => 0 <? se x | None => false end); cbn [length]; lia.
Qed.

Section Default.
  Variables (tpl rc : its) (l r : molg) (host : hostg) (m : mapping) (T : its).
  Hypothesis Hnd0 : nodupb (node_ids tpl) = true.
  Hypothesis Hel : forall k a, In (k, a) (gnodes tpl) -> a_el (iH a) = a_el (iG a).
  Hypothesis Hsimple : simple_edgesb (gedges tpl) = true.
  Hypothesis Hs : synrule tpl true = Some (rc, l, r).
  Hypothesis Hcond : tpl_condition tpl.
  Hypothesis Hwh : wf_hostb host = true.
  Hypothesis Hwr : wf_rcb rc = true.
  Hypothesis Hm : match_rcb host rc m = true.
  Hypothesis Hg : glue host rc m = Some T.

  Theorem default_glued_exact :
    pairs_exactb T = true /\ pairs_okb T = true /\
    forall ord, (forall l x, In x (ord l) <-> In x l) -> (forall l, NoDup l -> NoDup (ord l)) -> explicit_h_ord ord T <> None.
  Proof.
    pose proof (nodupb_NoDup _ Hnd0) as Hnd.
    destruct (synrule_default_pointwise tpl rc l r Hnd0 Hel Hs) as (R & NR & Memb & Eids & _ & _ & Nrc & _ & Pt & _).
    pose proof (match_rcb_sound host rc m (wf_rc_nodup rc Hwr) Hm) as MO.
    set (K := filter (fun k => negb (is_H_i tpl k)) (node_ids tpl)).
    set (EL := gedges (side0 iG eG tpl)). set (ER := gedges (side0 iH eH tpl)).
    assert (NK : NoDup K) by (apply NoDup_filter; exact Hnd).
    assert (HK : forall k, In k K <-> In k (node_ids tpl) /\ is_H_i tpl k = false).
    { intros k. unfold K. rewrite filter_In. split; intros [A B]; (split; [exact A|]); [apply negb_true_iff in B; exact B|rewrite B; reflexivity]. }
    assert (RH : forall h, In h R -> is_H_i tpl h = true) by (intros h I; exact (proj1 (proj1 (Memb h) I))).
    (* atoms of rc *)
    assert (Irc : forall k, In k (node_ids rc) <-> In k (node_ids tpl) /\ ~ In k R).
    { intros k. rewrite Eids, filter_In. split; intros [A B]; (split; [exact A|]).
      - intros C. apply mem_spec in C. rewrite C in B. discriminate.
      - rewrite (mem_false k R B). reflexivity. }
    assert (Krc : forall k, In k K -> In k (node_ids rc)).
    { intros k Ik. apply HK in Ik. apply Irc. split; [exact (proj1 Ik)|]. intros C. rewrite (RH k C) in Ik. destruct Ik; discriminate. }
    assert (Kimg : forall k, In k K -> exists x, mget m k = Some x).
    { intros k Ik. pose proof (Krc k Ik) as I. unfold node_ids in I. apply in_map_iff in I. destruct I as ([k' pn] & E & I). cbn [fst] in E. subst k'.
      destruct (mo_nodes _ _ _ MO k pn I) as (x & hn & E & _). eauto. }
    assert (Inj : forall k k' x, mget m k = Some x -> mget m k' = Some x -> k = k').
    { intros k k' x E E'. exact (mget_inj m k k' x (mo_vals _ _ _ MO) E E'). }
    (* the rule atom behind an image, with its two hydrogen counts *)
    assert (Cnt : forall k pn, In (k, pn) (gnodes rc) ->
              a_hc (iG pn) - a_hc (iH pn) = if is_H_i tpl k then 0 else sum_cnt EL R k - sum_cnt ER R k).
    { intros k pn I. assert (Ik : In k (node_ids rc)) by (change k with (fst (k, pn)); apply in_map; exact I).
      apply Irc in Ik. destruct Ik as [It Nr]. unfold node_ids in It. apply in_map_iff in It. destruct It as ([k' a0] & E & It). cbn [fst] in E. subst k'.
      pose proof (assoc_nodup_in k (gnodes tpl) a0 Hnd It) as Lt. fold (label tpl k) in Lt.
      destruct (Pt k a0 Lt Nr) as (a & La & _ & _ & G1 & G2).
      pose proof (assoc_nodup_in k (gnodes rc) pn Nrc I) as Lr. fold (label rc k) in Lr. rewrite Lr in La. inversion La; subst a.
      unfold is_H_i. rewrite Lt. rewrite G1, G2. destruct (N.eqb (a_el (iG a0)) EL_H); reflexivity. }
    set (lg := map (fun h => (imgs m (cnt EL h) K, imgs m (cnt ER h) K)) R).
    apply (ledger_sound T lg).
    - (* (i) *)
      intros n. unfold lg. rewrite ledger_dl_map.
      destruct (in_dec N.eq_dec n (map snd m)) as [I|NI].
      + apply in_map_iff in I. destruct I as ([k n'] & E & I). cbn [snd] in E. subst n'.
        pose proof (matched_mget host rc m Hwr Hm k n I) as Ek. destruct (matched_rc_node host rc m Hwr Hm k n I) as (pn & Ik).
        destruct (glued_node host rc m T Hwr Hm Hg k n pn Ek Ik) as (hn & _ & Hl).
        assert (Dl : dl_of T n = a_hc (iG pn) - a_hc (iH pn)).
        { unfold dl_of. rewrite Hl. unfold delta_h. cbn [iG iH a_hc]. lia. }
        rewrite Dl, (Cnt k pn Ik).
        destruct (is_H_i tpl k) eqn:Eh.
        * (* a kept explicit hydrogen: not in K *)
          assert (Z0 : forall w, occurrences n (imgs m w K) = 0).
          { intros w. apply occ_imgs_other. intros k' Ik' Ek'. rewrite (Inj k' k n Ek' Ek) in Ik'. apply HK in Ik'. rewrite Eh in Ik'. destruct Ik'; discriminate. }
          clear - Z0. induction R as [|h rr IH]; [reflexivity|]. cbn [fold_right]. rewrite !Z0, <- IH. lia.
        * assert (IkK : In k K).
          { apply HK. split; [|exact Eh]. assert (I2 : In k (node_ids rc)) by (change k with (fst (k, pn)); apply in_map; exact Ik). exact (proj1 (proj1 (Irc k) I2)). }
          assert (Oc : forall es h, occurrences n (imgs m (cnt es h) K) = cnt es h k).
          { intros es h. apply (occ_imgs m (cnt es h) K k n NK IkK Ek); [unfold cnt; lia|]. intros k' _ Ek'. exact (Inj k' k n Ek' Ek). }
          rewrite sum_cnt_diff. clear - Oc. induction R as [|h rr IH]; [reflexivity|]. cbn [fold_right]. rewrite !Oc, IH. reflexivity.
      + assert (Dl : dl_of T n = 0).
        { unfold dl_of. rewrite (unglued_node host rc m T Hg n NI). destruct (label host n); cbn [option_map]; [unfold delta_h; cbn [iG iH]; lia|reflexivity]. }
        assert (Z0 : forall w, occurrences n (imgs m w K) = 0).
        { intros w. apply occ_imgs_other. intros k' _ Ek'. apply NI. unfold mget in Ek'. apply assoc_in in Ek'. change n with (snd (k', n)). apply in_map. exact Ek'. }
        rewrite Dl. clear - Z0. induction R as [|h rr IH]; [reflexivity|]. cbn [fold_right]. rewrite !Z0, <- IH. lia.
    - (* (ii) a common pair id *)
      intros hh Ih. unfold lg in Ih. apply in_map_iff in Ih. destruct Ih as (h & <- & IhR). cbn [fst snd].
      destruct (proj1 (Memb h) IhR) as (M1 & M2 & M3).
      destruct (synrule_default_pairs_complete tpl rc l r Hnd0 Hel Hs h M1 M2 M3) as (p & Hp). exists p.
      intros x Ix. apply in_app_or in Ix.
      assert (G : forall sn se, In x (imgs m (cnt (gedges (side0 sn se tpl)) h) K) -> exists A, In (x, A) (gnodes T) /\ In p (hp_of A)).
      { intros sn se I. destruct (in_imgs _ _ _ _ I) as (k & Ik & Ek & Pos).
        pose proof (cnt_pos_nbrs sn se tpl h k Hsimple Pos) as Nb. apply HK in Ik as Ik'. destruct Ik' as [It Nh].
        destruct (Hp k Nb Nh (proj2 (has_node_in tpl k) It)) as (A & La & PA).
        unfold label in La. apply assoc_in in La.
        destruct (glued_node host rc m T Hwr Hm Hg k x A Ek La) as (hn & _ & Hl).
        eexists. split; [unfold label in Hl; apply assoc_in in Hl; exact Hl|]. unfold hp_of in *. cbn [i_hp]. destruct (i_hp A); exact PA. }
      destruct Ix as [Ix|Ix]; [exact (G iG eG Ix)|exact (G iH eH Ix)].
    - (* (iii) *)
      intros hh Ih. unfold lg in Ih. apply in_map_iff in Ih. destruct Ih as (h & <- & IhR). cbn [fst snd].
      apply Nat2Z.inj. rewrite !(length_imgs m _ K Kimg). unfold EL, ER. rewrite !(sum_cnt_countZ _ _ tpl h K Hsimple).
      destruct (Hcond R K NR NK Memb HK) as [E _]. symmetry. exact (E h IhR).
  Qed.
End Default.
