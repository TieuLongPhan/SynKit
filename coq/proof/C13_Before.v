(** C13 -- the defect of /repo before 6f9daf3: BatchCluster.lib_check compared list-valued pre-grouping attributes in RAW
    order while GraphCluster compares sorted(value).  [lib_check_before] models that code; the witness shows batched
    clustering <> one-shot clustering on two items that the one-shot path (correctly) puts together.  In the model of the
    repaired code [bc_key] and [gc_key] coincide (lemma [bc_key_gc_key] of proof/C13_Proof.v) and C13_batch_equals_oneshot holds. *)
From Coq Require Import List ZArith.
From SK Require Import lib.LGraph model.C13_Model proof.C13_Proof.
Import ListNotations.

Definition bc_key_before (mode : attr_mode) (x : item) : list Z :=
  match mode with ANone => [] | AStr => it_attr x | AList => it_attr x | AMixed => it_attr x end.

Definition lib_check_before (iso : item -> item -> bool) (mode : attr_mode) (x : item) (ts : list template)
  : Z * list template :=
  let sub := filter (fun t => zlist_eqb (bc_key_before mode (fst t)) (bc_key_before mode x)) ts in
  match find (fun t => iso (fst t) x) sub with
  | Some t => (snd t, ts)
  | None => let c := (fold_right Z.max (-1) (map snd ts) + 1)%Z in (c, ts ++ [(x, c)])
  end.

Fixpoint cluster_before (iso : item -> item -> bool) (mode : attr_mode) (data : list item) (ts : list template)
  : list Z * list template :=
  match data with
  | [] => ([], ts)
  | x :: r =>
      let '(c, ts1) := lib_check_before iso mode x ts in
      let '(cs, ts2) := cluster_before iso mode r ts1 in
      (c :: cs, ts2)
  end.

Definition wit_x : item := MkItem 0 [67; 79]%Z (LG [] []).
Definition wit_y : item := MkItem 1 [79; 67]%Z (LG [] []).

Lemma unsorted_attribute_before_repair :
  exists (iso : item -> item -> bool) (data : list item),
    (forall x y, iso x y = true) /\
    (forall x y, In x data -> In y data -> gc_key AList x = gc_key AList y) /\
    gc_fit iso AList data = [Some 0; Some 0] /\
    fst (cluster_before iso AList data []) = [0; 1]%Z /\
    fst (cluster iso AList data []) = [0; 0]%Z.
Proof.
  exists (fun _ _ => true), [wit_x; wit_y]. split; [reflexivity|]. split.
  - intros x y [<-|[<-|[]]] [<-|[<-|[]]]; reflexivity.
  - repeat apply conj; vm_compute; reflexivity.
Qed.

(** The defect of /repo before 3659dfd: GraphCluster chose the normalisation by the type of the FIRST attribute.  With a str first,
    every value of the list was compared raw -- which is mode [AStr] applied to the whole list; the repaired code
    normalises every value on its own -- mode [AMixed].  Witness: a str-tagged first item followed by two "isomorphic"
    items whose list-tagged attributes are permutations of each other. *)
Definition mix_a : item := MkItem 0 [0; 97]%Z (LG [] []).           (* str "a" *)
Definition mix_b : item := MkItem 1 [1; 67; 79]%Z (LG [] []).       (* list [67, 79] *)
Definition mix_c : item := MkItem 2 [1; 79; 67]%Z (LG [] []).       (* list [79, 67] *)
Definition mix_iso (x y : item) : bool :=
  Z.eqb (hd 0%Z (it_attr x)) (hd 0%Z (it_attr y)).                  (* b ~ c, a alone *)

Lemma first_item_normalisation_before_repair :
  gc_key AMixed mix_b = gc_key AMixed mix_c /\
  gc_fit mix_iso AMixed [mix_a; mix_b; mix_c] = [Some 0; Some 1; Some 1] /\
  gc_fit mix_iso AStr [mix_a; mix_b; mix_c] = [Some 0; Some 1; Some 2] /\
  fst (cluster mix_iso AMixed [mix_a; mix_b; mix_c] []) = [0; 1; 1]%Z.
Proof. repeat apply conj; vm_compute; reflexivity. Qed.

Lemma norm_value_meaning (r : list Z) (t : Z) :
  norm_value (1%Z :: r) = 1%Z :: sortZ r /\ norm_value (3%Z :: r) = 3%Z :: sortZ r /\
  (t <> 1%Z -> t <> 3%Z -> norm_value (t :: r) = t :: r) /\ norm_value [] = [].
Proof.
  repeat split; try reflexivity. intros H1 H3. unfold norm_value.
  destruct t as [|p|p]; try reflexivity. destruct p as [p|p|]; try reflexivity; [destruct p; try reflexivity; congruence|congruence].
Qed.
