(** C14 — BatchReactor.fit is [map single]: whatever the allocator, the collector and the cache do,
    the outputs of a sequence of fit calls on one BatchReactor are, entry by entry, what applying the
    rules to that entry alone gives — each call over its own entry list (model/C14_BenchModel.v) or all
    over the same one; and the facts about [_dedupe]. *)
From Coq Require Import NArith List Bool Arith.
Import ListNotations.
From SK Require Import model.C14_Model model.C14_BenchModel proof.C14_Proof.
Local Open Scope N_scope.

Lemma existsb_eqb_In x l : existsb (N.eqb x) l = true <-> In x l.
Proof.
  rewrite existsb_exists. split.
  - intros (y & Hy & E). apply N.eqb_eq in E. subst; auto.
  - intro H. exists x. split; auto. apply N.eqb_refl.
Qed.

Lemma dedupe_aux_In seen l x : In x (dedupe_aux seen l) <-> In x l /\ ~ In x seen.
Proof.
  revert seen. induction l as [|y l IH]; intros seen; simpl; [tauto|].
  destruct (existsb (N.eqb y) seen) eqn:E.
  - apply existsb_eqb_In in E. rewrite IH. split.
    + intros [H1 H2]. auto.
    + intros [[->|H1] H2]; [contradiction|auto].
  - assert (Hn : ~ In y seen) by (intro H; apply existsb_eqb_In in H; congruence).
    simpl. rewrite IH. simpl. split.
    + intros [<-|[H1 H2]]; auto.
    + intros [[<-|H1] H2]; auto.
      destruct (N.eq_dec y x) as [Hyx|Hyx]; auto. right. split; auto. intros [H3|H3]; auto.
Qed.

Lemma dedupe_aux_NoDup seen l : NoDup (dedupe_aux seen l).
Proof.
  revert seen. induction l as [|y l IH]; intros seen; simpl.
  - constructor.
  - destruct (existsb (N.eqb y) seen) eqn:E; auto.
    constructor; auto. rewrite dedupe_aux_In. simpl. tauto.
Qed.

Lemma dedupe_In l x : In x (dedupe l) <-> In x l.
Proof. unfold dedupe. rewrite dedupe_aux_In. simpl. tauto. Qed.

Lemma dedupe_NoDup l : NoDup (dedupe l).
Proof. apply dedupe_aux_NoDup. Qed.

(** order-preserving, keeps FIRST occurrences: the output grows at the end, and only by elements not
    met before (this characterises the function completely, by induction from the right). *)
Lemma dedupe_aux_snoc seen l x :
  dedupe_aux seen (l ++ [x]) =
  if existsb (N.eqb x) seen || existsb (N.eqb x) l then dedupe_aux seen l else dedupe_aux seen l ++ [x].
Proof.
  revert seen. induction l as [|y l IH]; intros seen; simpl.
  - rewrite orb_false_r. destruct (existsb (N.eqb x) seen); reflexivity.
  - destruct (existsb (N.eqb y) seen) eqn:E; rewrite IH; simpl.
    + destruct (N.eqb_spec x y) as [->|_]; [rewrite E|]; reflexivity.
    + destruct (N.eqb x y); simpl; [rewrite orb_true_r; reflexivity|].
      destruct (existsb (N.eqb x) seen || existsb (N.eqb x) l); reflexivity.
Qed.

Lemma dedupe_snoc l x :
  dedupe (l ++ [x]) = if existsb (N.eqb x) l then dedupe l else dedupe l ++ [x].
Proof. unfold dedupe. rewrite dedupe_aux_snoc. reflexivity. Qed.

Lemma dedupe_nil : dedupe [] = [].
Proof. reflexivity. Qed.

Lemma dedupe_aux_id seen l : NoDup l -> (forall x, In x l -> ~ In x seen) -> dedupe_aux seen l = l.
Proof.
  revert seen. induction l as [|y l IH]; intros seen Hnd Hs; simpl; auto.
  inversion Hnd; subst.
  destruct (existsb (N.eqb y) seen) eqn:E.
  - apply existsb_eqb_In in E. exfalso. apply (Hs y); simpl; auto.
  - f_equal. apply IH; auto. intros x Hx [H|H].
    + subst; auto.
    + apply (Hs x); simpl; auto.
Qed.

Lemma dedupe_idempotent l : dedupe (dedupe l) = dedupe l.
Proof. unfold dedupe at 1. apply dedupe_aux_id; [apply dedupe_NoDup|auto]. Qed.

Section Batch.
  Variable execute : N -> N -> bool -> list N.

  Fixpoint cspec (cs : list N) (p : list cop) : list (list N) :=
    match p with
    | [] => []
    | CAlloc c :: r => cspec (cs ++ [c]) r
    | CApply s o inv :: r => execute (nth (N.to_nat s) cs 0) (nth (N.to_nat o) cs 0) inv :: cspec cs r
    | CRelease _ :: r => cspec cs r
    end.

  Fixpoint allocs (p : list cop) : list N :=
    match p with
    | [] => []
    | CAlloc c :: r => c :: allocs r
    | _ :: r => allocs r
    end.

  (** the specification only looks at what the client did *)
  Lemma spec_client_view tr : forall cs, spec execute cs tr = cspec cs (client_view tr).
  Proof.
    induction tr as [|ev tr IH]; intros cs; simpl; auto.
    destruct ev; simpl; rewrite ?IH; auto.
  Qed.

  Lemma cspec_app p : forall cs q, cspec cs (p ++ q) = cspec cs p ++ cspec (cs ++ allocs p) q.
  Proof.
    induction p as [|op p IH]; intros cs q; simpl.
    - rewrite app_nil_r. reflexivity.
    - destruct op; simpl; rewrite IH; auto.
      rewrite <- app_assoc. reflexivity.
  Qed.

  Lemma allocs_app p q : allocs (p ++ q) = allocs p ++ allocs q.
  Proof. induction p as [|op p IH]; simpl; auto. destruct op; simpl; rewrite IH; auto. Qed.

  Lemma cspec_allocs l cs : cspec cs (map CAlloc l) = [].
  Proof. revert cs. induction l; intros; simpl; auto. Qed.

  Lemma allocs_allocs l : allocs (map CAlloc l) = l.
  Proof. induction l; simpl; congruence. Qed.

  Lemma cspec_releases {A} (f : A -> N) l cs : cspec cs (map (fun k => CRelease (f k)) l) = [].
  Proof. induction l; simpl; auto. Qed.

  Lemma allocs_releases {A} (f : A -> N) l : allocs (map (fun k => CRelease (f k)) l) = [].
  Proof. induction l; simpl; auto. Qed.

  Lemma cspec_applies s inv ros cs :
    cspec cs (map (fun ro => CApply s ro inv) ros) =
    map (fun ro => execute (cont_of cs s) (cont_of cs ro) inv) ros.
  Proof. induction ros; simpl; auto. rewrite IHros. reflexivity. Qed.

  Lemma allocs_applies s inv ros : allocs (map (fun ro => CApply s ro inv) ros) = [].
  Proof. induction ros; simpl; auto. Qed.

  Fixpoint strs (rs : list rspec) : list N :=
    match rs with [] => [] | RStr c :: r => c :: strs r | RObj _ :: r => strs r end.

  Definition robj_ok (pool : list N) (r : rspec) : Prop :=
    match r with RStr _ => True | RObj o => (N.to_nat o < length pool)%nat end.

  (** [cs]: the contents allocated so far, the shared rule objects [pool] first.  The rule strings are allocated in
      order, and the rule objects of the call read (from then on) the contents [rule_content] gives. *)
  Lemma alloc_rules_spec pool rs : forall cs,
    (exists t, cs = pool ++ t) -> Forall (robj_ok pool) rs ->
    let '(ops, all, _, n') := alloc_rules (N.of_nat (length cs)) rs in
    ops = map CAlloc (strs rs) /\ n' = N.of_nat (length (cs ++ strs rs)) /\
    forall l, map (cont_of (cs ++ strs rs ++ l)) all = map (rule_content pool) rs.
  Proof.
    induction rs as [|r rs IH]; intros cs [t Ht] Hok; simpl.
    - rewrite app_nil_r. auto.
    - pose proof (Forall_inv Hok) as Hr. apply Forall_inv_tail in Hok. destruct r as [c|o].
      + rewrite (next_id cs c). specialize (IH (cs ++ [c])).
        destruct (alloc_rules (N.of_nat (length (cs ++ [c]))) rs) as [[[ops all] own] n'].
        destruct IH as (-> & -> & H3); [exists (t ++ [c]); rewrite Ht; symmetry; apply app_assoc|exact Hok|].
        rewrite <- app_assoc. repeat split. intro l. simpl. f_equal; [apply cont_of_last|].
        specialize (H3 l). rewrite <- app_assoc in H3. exact H3.
      + specialize (IH cs).
        destruct (alloc_rules (N.of_nat (length cs)) rs) as [[[ops all] own] n'].
        destruct IH as (-> & -> & H3); [exists t; exact Ht|exact Hok|].
        repeat split. intro l. simpl. f_equal; [|apply H3].
        rewrite Ht, <- app_assoc. apply cont_of_ext. exact Hr.
  Qed.

  Definition entry_results (rcs : list N) (inv : bool) (subs : list N) : list (list (list N)) :=
    map (fun c => map (fun rc => execute c rc inv) rcs) subs.

  Lemma entries_spec ros rcs inv subs : forall cs,
    (forall l, map (cont_of (cs ++ l)) ros = rcs) ->
    let '(ops, n') := entries_prog (N.of_nat (length cs)) ros inv subs in
    cspec cs ops = concat (entry_results rcs inv subs) /\ n' = N.of_nat (length (cs ++ allocs ops)).
  Proof.
    induction subs as [|c subs IH]; intros cs Hr; simpl.
    - rewrite app_nil_r. auto.
    - rewrite (next_id cs c). specialize (IH (cs ++ [c])).
      destruct (entries_prog (N.of_nat (length (cs ++ [c]))) ros inv subs) as [ops n'].
      destruct IH as [H1 ->]; [intro l; rewrite <- app_assoc; apply Hr|].
      simpl. rewrite cspec_app, allocs_app, cspec_applies, allocs_applies, app_nil_r. simpl.
      rewrite <- app_assoc. split; [|reflexivity].
      rewrite H1. f_equal. rewrite <- (Hr [c]), map_map. apply map_ext. intro ro.
      rewrite cont_of_last. reflexivity.
  Qed.

  Lemma fit_spec pool rs inv subs cs :
    (exists t, cs = pool ++ t) -> Forall (robj_ok pool) rs ->
    let '(ops, n') := fit_prog (N.of_nat (length cs)) rs inv subs in
    cspec cs ops = concat (entry_results (map (rule_content pool) rs) inv subs) /\
    n' = N.of_nat (length (cs ++ allocs ops)).
  Proof.
    unfold fit_prog. intros Hpre Hok.
    pose proof (alloc_rules_spec pool rs cs Hpre Hok) as H.
    destruct (alloc_rules (N.of_nat (length cs)) rs) as [[[ops1 all] own] n1]. destruct H as (-> & -> & H3).
    pose proof (entries_spec all (map (rule_content pool) rs) inv subs (cs ++ strs rs)) as G.
    destruct (entries_prog (N.of_nat (length (cs ++ strs rs))) all inv subs) as [ops2 n2].
    destruct G as [G1 ->]; [intro l; rewrite <- app_assoc; apply H3|].
    rewrite !cspec_app, !allocs_app, cspec_allocs, allocs_allocs, G1.
    rewrite (cspec_releases (fun k => k)), (allocs_releases (fun k => k)), !app_nil_r, app_assoc.
    auto.
  Qed.

  Definition calls_results (pool : list N) (calls : list call2) : list (list N) :=
    concat (map (fun call : call2 =>
                   concat (entry_results (map (rule_content pool) (fst (fst call))) (snd (fst call)) (snd call))) calls).

  Lemma calls_spec pool calls : forall cs,
    (exists t, cs = pool ++ t) ->
    Forall (fun call : call2 => Forall (robj_ok pool) (fst (fst call))) calls ->
    cspec cs (calls_prog2 (N.of_nat (length cs)) calls) = calls_results pool calls.
  Proof.
    induction calls as [|[[rs inv] subs] calls IH]; intros cs [t Ht] Hok; simpl; auto.
    pose proof (fit_spec pool rs inv subs cs (ex_intro _ t Ht) (Forall_inv Hok)) as H.
    destruct (fit_prog (N.of_nat (length cs)) rs inv subs) as [ops n']. destruct H as [H1 ->].
    rewrite cspec_app, H1. unfold calls_results. simpl. f_equal.
    apply IH; [|exact (Forall_inv_tail Hok)].
    exists (t ++ allocs ops). rewrite Ht, <- app_assoc. reflexivity.
  Qed.

  Lemma batch_spec pool calls :
    Forall (fun call : call2 => Forall (robj_ok pool) (fst (fst call))) calls ->
    cspec [] (batch_prog2 pool calls) = calls_results pool calls.
  Proof.
    intro Hok. unfold batch_prog2.
    rewrite cspec_app, cspec_allocs, allocs_allocs. simpl.
    rewrite cspec_app, cspec_releases, app_nil_r.
    apply calls_spec; auto. exists []. rewrite app_nil_r. reflexivity.
  Qed.

  Lemma chop_concat {A} (n m : nat) (gs : list (list A)) rest :
    length gs = n -> Forall (fun g => length g = m) gs -> chop n m (concat gs ++ rest) = (gs, rest).
  Proof.
    intros <-. induction 1 as [|g gs Hg Hgs IH]; simpl; auto. subst m.
    rewrite <- app_assoc, skipn_app, skipn_all, firstn_app, firstn_all, Nat.sub_diag. simpl.
    rewrite IH, app_nil_r. reflexivity.
  Qed.

  Lemma chop_entry_results rcs inv subs m rest :
    length rcs = m ->
    chop (length subs) m (concat (entry_results rcs inv subs) ++ rest) = (entry_results rcs inv subs, rest).
  Proof.
    intros <-. apply chop_concat; [apply map_length|].
    unfold entry_results. rewrite Forall_map. apply Forall_forall. intros c _. apply map_length.
  Qed.

  Lemma entry_out_results dd rcs inv subs :
    map (entry_out dd) (entry_results rcs inv subs) = map (single execute dd rcs inv) subs.
  Proof. unfold entry_results. rewrite map_map. reflexivity. Qed.

  Lemma fit_outputs2_spec dd pool calls :
    fit_outputs2 dd calls (calls_results pool calls) =
    map (fun call : call2 => map (single execute dd (map (rule_content pool) (fst (fst call))) (snd (fst call))) (snd call)) calls.
  Proof.
    induction calls as [|[[rs inv] subs] calls IH]; simpl; auto.
    unfold calls_results. simpl. rewrite chop_entry_results by apply map_length.
    rewrite entry_out_results. f_equal. exact IH.
  Qed.

  (** any sequence of fit calls on one object, each over its own entries *)
  Theorem calls_are_maps cache_on cmax dd pool calls tr outs fin :
    run (list N) execute true cache_on cmax (init _) tr = (true, outs, fin) ->
    client_view tr = batch_prog2 pool calls ->
    Forall (fun call : call2 => Forall (robj_ok pool) (fst (fst call))) calls ->
    fit_outputs2 dd calls (map snd outs) =
    map (fun call : call2 => map (single execute dd (map (rule_content pool) (fst (fst call))) (snd (fst call))) (snd call)) calls.
  Proof.
    intros Hrun Hview Hok.
    rewrite (cache_transparent _ _ _ _ _ _ _ Hrun), spec_client_view, Hview, batch_spec; auto.
    apply fit_outputs2_spec.
  Qed.

  Definition with_subs (subs : list N) (call : list rspec * bool) : call2 := (fst call, snd call, subs).

  Lemma calls_prog_with_subs subs calls : forall nx,
    calls_prog nx subs calls = calls_prog2 nx (map (with_subs subs) calls).
  Proof.
    induction calls as [|[rs inv] calls IH]; intros nx; simpl; [reflexivity|].
    destruct (fit_prog nx rs inv subs) as [ops n']. now rewrite IH.
  Qed.

  Lemma fit_outputs_with_subs dd subs calls : forall results,
    fit_outputs dd (length subs) calls results = fit_outputs2 dd (map (with_subs subs) calls) results.
  Proof.
    induction calls as [|[rs inv] calls IH]; intros results; simpl; [reflexivity|].
    destruct (chop (length subs) (length rs) results) as [gs rest]. now rewrite IH.
  Qed.

  Theorem batch_is_map cache_on cmax dd pool subs calls tr outs fin :
    run (list N) execute true cache_on cmax (init _) tr = (true, outs, fin) ->
    client_view tr = batch_prog pool subs calls ->
    Forall (fun call => Forall (robj_ok pool) (fst call)) calls ->
    fit_outputs dd (length subs) calls (map snd outs) =
    map (fun call => map (single execute dd (map (rule_content pool) (fst call)) (snd call)) subs) calls.
  Proof.
    intros Hrun Hview Hok.
    rewrite fit_outputs_with_subs,
      (calls_are_maps cache_on cmax dd pool (map (with_subs subs) calls) tr outs fin Hrun).
    - rewrite map_map. reflexivity.
    - rewrite Hview. unfold batch_prog, batch_prog2. now rewrite calls_prog_with_subs.
    - rewrite Forall_map. exact Hok.
  Qed.
End Batch.

(** Two entries, two fit calls (forward with the same rule OBJECT twice + a string rule, then backward),
    cache of size 2, the collector frees the first substrate as soon as it can and the allocator
    hands its address out again in the second call: a legal trace of the batch program with genuine hits. *)
Definition nvb_exec (s r : N) (inv : bool) : list N := [s + r; s; s + r; if inv then 1 else 0].
Definition nvb_pool : list N := [50].
Definition nvb_subs : list N := [1; 2].
Definition nvb_calls : list (list rspec * bool) := [([RObj 0; RStr 60; RObj 0], false); ([RObj 0], true)].
Definition nvb_trace : list event :=
  [EAlloc 100 50;
   EAlloc 101 60;
   EAlloc 102 1; EApply 2 0 false; EApply 2 1 false; EApply 2 0 false; ERelease 2;
   EAlloc 103 2; EApply 3 0 false; EApply 3 1 false; ECollect 2; EApply 3 0 false; ERelease 3;
   ERelease 1;
   EAlloc 102 1; EApply 4 0 true; ERelease 4;
   EAlloc 104 2; EApply 5 0 true; ECollect 3; ECollect 1; ERelease 5;
   ERelease 0].

Example batch_is_map_nonvacuous :
  let '(ok, outs, fin) := run (list N) nvb_exec true true 2 (init _) nvb_trace in
  ok = true /\ client_view nvb_trace = batch_prog nvb_pool nvb_subs nvb_calls
  /\ Forall (fun call => Forall (robj_ok nvb_pool) (fst call)) nvb_calls
  /\ map fst outs = [false; false; true; false; false; true; false; false]
  /\ fit_outputs true 2 nvb_calls (map snd outs) = [[[51; 1; 0; 61]; [52; 2; 0; 62]]; [[51; 1]; [52; 2; 1]]].
Proof.
  vm_compute. repeat split; try reflexivity.
  repeat constructor.
Qed.

Example dedupe_example : dedupe [3; 1; 3; 2; 1; 4] = [3; 1; 2; 4].
Proof. reflexivity. Qed.
