(** C02 — find_nearest_neighbors + extract_subgraph for ANY list of start atoms, generic in the node and bond types
    ([knn_g], [ball_sub], [walk_g], [dist_le_g] of model/C02_Store.v): the induced subgraph on the distance-<=k ball; balls grow
    with the radius, keep distances, nest, and commute with renumbering.  extract_k on [its] and on [sits] are instances. *)
From Coq Require Import List NArith ZArith Bool Lia.
From SK Require Import lib.LGraph lib.Reach lib.C01_GraphLemmas model.C01_Model model.C02_Model model.C02_Store.
Import ListNotations.

Lemma geq_node_ids {A B} (g h : lgraph A B) : geq g h -> forall n, In n (node_ids g) <-> In n (node_ids h).
Proof. intros [HL _] n. rewrite <- !has_node_spec. unfold has_node. rewrite HL. tauto. Qed.

Lemma adj_some_nodes {A B} (g : lgraph A B) u v e : wf g -> adj g u v = Some e -> In u (node_ids g) /\ In v (node_ids g).
Proof.
  intros W Ad. apply (wf_adj_iff W) in Ad. destruct Ad as [Ad|Ad]; destruct (wf_edge_nodes W Ad) as (P & Q & _); auto.
Qed.

Section CtxG.
Context {A B : Type}.
Variable g : lgraph A B.

Lemma dist_le_g_mono S k k' n : (k <= k')%nat -> dist_le_g g S k n -> dist_le_g g S k' n.
Proof. intros Hk (s & m & I & Hm & Wk). exists s, m. repeat split; auto. lia. Qed.

Lemma knn_g_spec S k n : In n (knn_g g S k) <-> dist_le_g g S k n.
Proof.
  revert n. induction k as [|k IH]; intros n.
  - unfold knn_g. simpl. rewrite add_all_in. split.
    + intros [I|[]]. exists n, O. repeat split; auto. constructor.
    + intros (s & m & I & Hm & Wk). left. assert (m = O) as -> by lia. inversion Wk; subst. exact I.
  - unfold knn_g in *. simpl. rewrite step_in. split.
    + intros [I|(u & Iu & In)].
      * apply IH in I. eapply dist_le_g_mono; [|exact I]. lia.
      * apply IH in Iu. destruct Iu as (s & m & I & Hm & Wk). exists s, (Datatypes.S m). repeat split; [exact I|lia|].
        econstructor; [exact Wk|]. apply in_nbrs. exact In.
    + intros (s & m & I & Hm & Wk). destruct (Nat.eq_dec m (Datatypes.S k)) as [->|Hne].
      * inversion Wk; subst. right. exists u. split; [|apply in_nbrs; assumption].
        apply IH. exists s, k. repeat split; auto.
      * left. apply IH. exists s, m. repeat split; auto. lia.
Qed.

Lemma walk_g_in_nodes s n m : wf g -> In s (node_ids g) -> walk_g g s n m -> In n (node_ids g).
Proof.
  intros W Is Wk. induction Wk as [s|s u n m Wk IH Ad]; [exact Is|].
  destruct (adj g u n) as [e|] eqn:E; [|congruence]. apply (adj_some_nodes g u n e W E).
Qed.

Lemma dist_le_g_in_nodes S k n : wf g -> (forall s, In s S -> In s (node_ids g)) -> dist_le_g g S k n -> In n (node_ids g).
Proof. intros W HS (s & m & I & _ & Wk). eapply walk_g_in_nodes; eauto. Qed.

Lemma mem_in_knn_g S k n : LGraph.mem n (knn_g g S k) = true <-> dist_le_g g S k n.
Proof. rewrite LGraph.mem_spec. apply knn_g_spec. Qed.

(** extract_subgraph = G.subgraph(ids).copy(): the listed atoms that exist, with their labels, and the bonds between them *)
Lemma induced_sub_spec ids : wf g ->
  (forall n a, label (induced_sub g ids) n = Some a <-> label g n = Some a /\ In n ids) /\
  (forall u v e, adj (induced_sub g ids) u v = Some e <-> adj g u v = Some e /\ In u ids /\ In v ids).
Proof.
  intros W. split.
  - intros n a. rewrite label_induced, <- (LGraph.mem_spec n ids). destruct (LGraph.mem n ids); intuition discriminate.
  - intros u v e. rewrite (adj_induced _ _ _ W), <- (LGraph.mem_spec u ids), <- (LGraph.mem_spec v ids).
    destruct (LGraph.mem u ids); destruct (LGraph.mem v ids); simpl; intuition discriminate.
Qed.

(** find_nearest_neighbors(G, S, k) then extract_subgraph: the induced subgraph on the atoms within k bonds of S *)
Theorem ball_sub_spec S k : wf g -> (forall s, In s S -> In s (node_ids g)) ->
  let Bk := dist_le_g g S k in
  (forall n, In n (node_ids (ball_sub g S k)) <-> Bk n) /\
  (forall n a, label (ball_sub g S k) n = Some a <-> label g n = Some a /\ Bk n) /\
  (forall u v e, adj (ball_sub g S k) u v = Some e <-> adj g u v = Some e /\ Bk u /\ Bk v).
Proof.
  intros W HS Bk. unfold ball_sub. destruct (induced_sub_spec (knn_g g S k) W) as [HL HA]. split; [|split].
  - intros n. rewrite node_ids_induced, knn_g_spec. split; [tauto|]. intros H. split; [|exact H].
    eapply dist_le_g_in_nodes; eauto.
  - intros n a. rewrite HL, knn_g_spec. reflexivity.
  - intros u v e. rewrite HA, !knn_g_spec. reflexivity.
Qed.

(** start atoms that are not atoms of the graph contribute only themselves to the ball, and the subgraph drops them *)
Lemma ball_sub_nodes_any S k n : wf g -> In n (node_ids (ball_sub g S k)) <-> In n (node_ids g) /\ dist_le_g g S k n.
Proof. intros W. unfold ball_sub. rewrite node_ids_induced, knn_g_spec. tauto. Qed.

(** balls grow with the radius *)
Lemma ball_sub_mono S k k' : wf g -> (k <= k')%nat ->
  (forall n, In n (node_ids (ball_sub g S k)) -> In n (node_ids (ball_sub g S k'))) /\
  (forall u v e, adj (ball_sub g S k) u v = Some e -> adj (ball_sub g S k') u v = Some e).
Proof.
  intros W Hk. split.
  - intros n. rewrite !ball_sub_nodes_any by exact W. intros [I D]. split; [exact I|eapply dist_le_g_mono; eauto].
  - intros u v e. unfold ball_sub. rewrite !(adj_induced _ _ _ W).
    destruct (LGraph.mem u (knn_g g S k)) eqn:Mu; destruct (LGraph.mem v (knn_g g S k)) eqn:Mv; simpl; try discriminate.
    apply mem_in_knn_g in Mu, Mv. apply (dist_le_g_mono S k k' _ Hk) in Mu. apply (dist_le_g_mono S k k' _ Hk) in Mv.
    apply mem_in_knn_g in Mu, Mv. rewrite Mu, Mv. simpl. auto.
Qed.

(** a ball lies within the graph; it holds the start atoms and every bond of the graph between two of them *)
Lemma ball_sub_within S k : wf g -> (forall s, In s S -> In s (node_ids g)) ->
  (forall n, In n (node_ids (ball_sub g S k)) -> In n (node_ids g)) /\
  (forall u v e, adj (ball_sub g S k) u v = Some e -> adj g u v = Some e) /\
  (forall s, In s S -> In s (node_ids (ball_sub g S k))) /\
  (forall u v e, adj g u v = Some e -> In u S -> In v S -> adj (ball_sub g S k) u v = Some e).
Proof.
  intros W HS. destruct (ball_sub_spec S k W HS) as (HN & _ & HA).
  assert (forall s, In s S -> dist_le_g g S k s) as Seed by (intros s I; exists s, O; repeat split; [exact I|lia|constructor]).
  split; [|split; [|split]].
  - intros n I. apply HN in I. eapply dist_le_g_in_nodes; eauto.
  - intros u v e Ad. apply HA in Ad. tauto.
  - intros s I. apply HN, Seed, I.
  - intros u v e Ad Iu Iv. apply HA. auto.
Qed.
End CtxG.


(** the generic vocabulary instantiated at [its] is the vocabulary of model/C02_Model.v *)
Lemma walk_g_its (g : its) s n m : walk_g g s n m <-> walk g s n m.
Proof. split; induction 1; econstructor; eauto. Qed.
Lemma dist_le_g_its (g : its) S k n : dist_le_g g S k n <-> dist_le g S k n.
Proof. unfold dist_le_g, dist_le. split; intros (s & m & H1 & H2 & H3); exists s, m; repeat split; auto; apply walk_g_its; exact H3. Qed.

(** * two facts about balls, generic in the node and bond types
    (a) inside the radius-k context every atom keeps its distance to the start atoms: a walk of length <= k from a start atom stays
        in the ball, so the context is CONNECTED to its centre — no atom of a context is cut off from the centre inside the context;
    (b) radii add up: the radius-(j+k) ball is the radius-k ball around the radius-j ball (what an incremental, HierContext-style
        extraction relies on). *)
Section BallFacts.
Context {A B : Type}.
Variable g : lgraph A B.
Hypothesis W : wf g.
Variable S : list N.
Hypothesis HS : forall s, In s S -> In s (node_ids g).

Lemma walk_into_ball k s n j : In s S -> walk_g g s n j -> (j <= k)%nat -> walk_g (ball_sub g S k) s n j.
Proof.
  intros Is Wk. induction Wk as [s|s u n j Wk IH Ad]; intros Hj; [constructor|].
  econstructor; [apply IH; [exact Is|lia]|].
  destruct (ball_sub_spec g S k W HS) as (_ & _ & A1).
  destruct (adj g u n) as [e|] eqn:E; [|congruence].
  assert (adj (ball_sub g S k) u n = Some e) as ->; [|discriminate].
  apply A1. split; [exact E|]. split.
  - exists s, j. repeat split; [exact Is|lia|exact Wk].
  - exists s, (Datatypes.S j). repeat split; [exact Is|lia|]. econstructor; [exact Wk|congruence].
Qed.

Lemma walk_from_ball k s n j : walk_g (ball_sub g S k) s n j -> walk_g g s n j.
Proof.
  intros Wk. induction Wk as [s|s u n j Wk IH Ad]; [constructor|]. econstructor; [exact IH|].
  destruct (ball_sub_spec g S k W HS) as (_ & _ & A1).
  destruct (adj (ball_sub g S k) u n) as [e|] eqn:E; [|congruence]. apply A1 in E. destruct E as [E _]. congruence.
Qed.

Theorem ball_distances_preserved k j n : (j <= k)%nat -> (dist_le_g (ball_sub g S k) S j n <-> dist_le_g g S j n).
Proof.
  intros Hj. split; intros (s & i & Is & Hi & Wk); exists s, i; repeat split; auto.
  - apply (walk_from_ball k). exact Wk.
  - apply walk_into_ball; [exact Is|exact Wk|lia].
Qed.

(** every atom of the context is reached from a start atom by a walk of at most k bonds INSIDE the context *)
Corollary ball_connected_to_seeds k n : In n (node_ids (ball_sub g S k)) -> dist_le_g (ball_sub g S k) S k n.
Proof. intros I. apply (ball_distances_preserved k k n (le_n _)). apply (proj1 (ball_sub_spec g S k W HS)). exact I. Qed.

Lemma walk_g_app s u n i j : walk_g g s u i -> walk_g g u n j -> walk_g g s n (i + j).
Proof.
  intros W1 W2. induction W2 as [u|u v n j W2 IH Ad]; [rewrite Nat.add_0_r; exact W1|].
  rewrite Nat.add_succ_r. econstructor; [apply IH; exact W1|exact Ad].
Qed.

Lemma walk_g_split s n i j : walk_g g s n (i + j) -> exists u, walk_g g s u i /\ walk_g g u n j.
Proof.
  revert n. induction j as [|j IH]; intros n Wk.
  - rewrite Nat.add_0_r in Wk. exists n. split; [exact Wk|constructor].
  - rewrite Nat.add_succ_r in Wk. inversion Wk as [|s' u' n' m' Wk' Ad]; subst.
    destruct (IH u' Wk') as (u & W1 & W2). exists u. split; [exact W1|]. econstructor; [exact W2|exact Ad].
Qed.

Theorem ball_radii_add j k n : dist_le_g g S (j + k) n <-> dist_le_g g (knn_g g S j) k n.
Proof.
  split.
  - intros (s & i & Is & Hi & Wk). destruct (Nat.le_gt_cases i j) as [Hij|Hij].
    + exists n, O. repeat split; [|lia|constructor]. apply knn_g_spec. exists s, i. auto.
    + replace i with (j + (i - j))%nat in Wk by lia. destruct (walk_g_split s n j (i - j) Wk) as (u & W1 & W2).
      exists u, (i - j)%nat. repeat split; [|lia|exact W2]. apply knn_g_spec. exists s, j. auto.
  - intros (u & i & Iu & Hi & Wk). apply knn_g_spec in Iu. destruct Iu as (s & i0 & Is & Hi0 & W1).
    exists s, (i0 + i)%nat. repeat split; [exact Is|lia|]. apply (walk_g_app s u n); assumption.
Qed.
End BallFacts.


(** * a start list that holds every atom gives the whole graph back *)
Lemma filter_id {X} (p : X -> bool) (l : list X) : (forall x, In x l -> p x = true) -> filter p l = l.
Proof.
  induction l as [|a l IH]; intros H; [reflexivity|]. cbn [filter]. rewrite (H a (or_introl eq_refl)). f_equal.
  apply IH. intros x Hx. apply H. right. exact Hx.
Qed.

Lemma induced_all {A B} (g : lgraph A B) L : wf g -> (forall n, In n (node_ids g) -> In n L) -> induced_sub g L = g.
Proof.
  intros W H. destruct g as [ns es]. unfold induced_sub. simpl. f_equal.
  - apply filter_id. intros [n a] I. simpl. apply LGraph.mem_spec. apply H.
    unfold node_ids. simpl. change n with (fst (n, a)). apply in_map. exact I.
  - apply filter_id. intros [[a b] x] I. simpl.
    destruct (wf_edge_nodes W I) as (Pa & Pb & _). apply andb_true_iff. split; apply LGraph.mem_spec; apply H; assumption.
Qed.

Lemma ball_sub_all {A B} (g : lgraph A B) S k : wf g -> (forall n, In n (node_ids g) -> In n S) -> ball_sub g S k = g.
Proof.
  intros W H. unfold ball_sub. apply induced_all; [exact W|]. intros n I. apply knn_g_spec. exists n, O. repeat split; [auto|lia|constructor].
Qed.

(** * balls nest: for k <= k' the radius-k ball taken inside the radius-k' ball is the radius-k ball *)
Theorem ball_of_ball {A B} (g : lgraph A B) (S S' : list N) (k k' : nat) : wf g ->
  (forall s, In s S -> In s (node_ids g)) -> (forall n, In n S' <-> In n S) -> (k <= k')%nat ->
  geq (ball_sub (ball_sub g S k') S' k) (ball_sub g S k).
Proof.
  intros W HS HS' Hk. pose (C := ball_sub g S k').
  assert (wf C) as WC by (apply wf_induced; exact W).
  destruct (ball_sub_spec g S k' W HS) as (N' & L' & A'). destruct (ball_sub_spec g S k W HS) as (_ & L0 & A0).
  assert (forall s, In s S' -> In s (node_ids C)) as HSC.
  { intros s I. apply N'. exists s, O. repeat split; [apply HS'; exact I|lia|constructor]. }
  destruct (ball_sub_spec C S' k WC HSC) as (_ & L1 & A1).
  assert (forall n, dist_le_g C S' k n <-> dist_le_g g S k n) as Same.
  { intros n. rewrite <- (ball_distances_preserved g W S HS k' k n Hk).
    split; intros (s & m & Is & R); exists s, m; (split; [apply HS'; exact Is|exact R]). }
  assert (forall n, dist_le_g g S k n -> dist_le_g g S k' n) as Mono by (intros n; apply dist_le_g_mono; exact Hk).
  subst C. split.
  - intros n. apply option_ext. intros a. rewrite L1, L0, Same, L'. split; [tauto|]. intros [L Bn]. auto.
  - intros u v. apply option_ext. intros e. rewrite A1, A0, !Same, A'. split; [tauto|]. intros (Ad & Bu & Bv). auto 6.
Qed.

(** * the contexts commute with renumbering, for every label shape and any start atoms *)
Section CtxEquivG.
Variable f : N -> N.
Hypothesis Hinj : forall a b, f a = f b -> a = b.
Context {A B : Type}.

Lemma filter_map_swap {X Y} (p : Y -> bool) (h : X -> Y) (l : list X) :
  filter p (map h l) = map h (filter (fun x => p (h x)) l).
Proof. induction l as [|x l IH]; simpl; [reflexivity|]. destruct (p (h x)); simpl; rewrite IH; reflexivity. Qed.

Lemma rmem_map x l : Reach.mem (f x) (map f l) = Reach.mem x l.
Proof. change (LGraph.mem (f x) (map f l) = LGraph.mem x l). apply (mem_map_inj Hinj). Qed.

Lemma add_all_map l : forall S, Reach.add_all (map f l) (map f S) = map f (Reach.add_all l S).
Proof.
  induction l as [|x l IH]; intros S; simpl; [reflexivity|]. rewrite rmem_map.
  destruct (Reach.mem x S); [apply IH|]. apply (IH (x :: S)).
Qed.

Lemma knn_g_map (g : lgraph A B) seeds k : knn_g (relabel f g) (map f seeds) k = map f (knn_g g seeds k).
Proof.
  unfold knn_g. induction k as [|k IH]; simpl.
  - apply (add_all_map seeds []).
  - rewrite IH. unfold Reach.step.
    assert (forall S, flat_map (nbrs (relabel f g)) (map f S) = map f (flat_map (nbrs g) S)) as FN.
    { induction S as [|u S IHS]; simpl; [reflexivity|]. rewrite (nbrs_relabel Hinj), map_app, IHS. reflexivity. }
    rewrite FN. apply add_all_map.
Qed.

Lemma induced_map_g (g : lgraph A B) L : induced_sub (relabel f g) (map f L) = relabel f (induced_sub g L).
Proof.
  unfold induced_sub, relabel. simpl. rewrite !filter_map_swap. f_equal.
  - f_equal. apply filter_ext. intros [n a]. simpl. apply (mem_map_inj Hinj).
  - f_equal. apply filter_ext. intros [[a b] x]. simpl. rewrite !(mem_map_inj Hinj). reflexivity.
Qed.

Theorem ball_sub_equivariant (g : lgraph A B) seeds k : ball_sub (relabel f g) (map f seeds) k = relabel f (ball_sub g seeds k).
Proof. unfold ball_sub. rewrite knn_g_map. apply induced_map_g. Qed.
End CtxEquivG.

(** * balls are taken on ids and bonds only: they commute with every map of the labels *)
Lemma nbrs_gmap {A A' B B'} (fn : A -> A') (fe : B -> B') (g : lgraph A B) u : nbrs (gmap fn fe g) u = nbrs g u.
Proof.
  unfold nbrs, gmap. simpl. induction (gedges g) as [|[[a b] x] r IH]; simpl; [reflexivity|]. rewrite IH. reflexivity.
Qed.

Lemma step_gmap {A A' B B'} (fn : A -> A') (fe : B -> B') (g : lgraph A B) S : Reach.step (nbrs (gmap fn fe g)) S = Reach.step (nbrs g) S.
Proof. unfold Reach.step. f_equal. apply flat_map_ext. intros u. apply nbrs_gmap. Qed.

Lemma knn_g_gmap {A A' B B'} (fn : A -> A') (fe : B -> B') (g : lgraph A B) S k : knn_g (gmap fn fe g) S k = knn_g g S k.
Proof. unfold knn_g. induction k as [|k IH]; simpl; [reflexivity|]. rewrite IH. apply step_gmap. Qed.

Lemma induced_gmap {A A' B B'} (fn : A -> A') (fe : B -> B') (g : lgraph A B) L : gmap fn fe (induced_sub g L) = induced_sub (gmap fn fe g) L.
Proof.
  unfold induced_sub, gmap. simpl. f_equal.
  - induction (gnodes g) as [|[n a] r IH]; simpl; [reflexivity|]. destruct (LGraph.mem n L); simpl; rewrite IH; reflexivity.
  - induction (gedges g) as [|[[a b] x] r IH]; simpl; [reflexivity|]. destruct (LGraph.mem a L && LGraph.mem b L); simpl; rewrite IH; reflexivity.
Qed.

Lemma ball_sub_gmap {A A' B B'} (fn : A -> A') (fe : B -> B') (g : lgraph A B) S k :
  gmap fn fe (ball_sub g S k) = ball_sub (gmap fn fe g) S k.
Proof. unfold ball_sub. rewrite knn_g_gmap. apply induced_gmap. Qed.
