(** C05 — the set-level invariance of the exhaustive strategy WITHOUT any premise about the embedding cap.
    proof/C05_Result.v proves it for searches below the cap ([side_ok] contains "the number of embeddings is at most
    [thr_val]", for both writings).  With proof/C05_Cap.v — the number of embeddings does not depend on the writing, and
    a search over the cap produces nothing — the premise disappears: for EVERY cap, both writings are over it (two empty
    result lists) or both are below it (results correspond one to one). *)
From Coq Require Import List ZArith Bool Lia.
From SK Require Import lib.LGraph.
From SK Require Import lib.C06_Spec proof.C06_Comp proof.C06_Main.
From SK Require Import model.C03_Model model.C05_Model proof.C05_Proof proof.C05_Pipe proof.C05_Comp proof.C05_Order proof.C05_Set proof.C05_Result proof.C05_Cap proof.C05_AllStrat.
Import ListNotations.

(** what is asked of one writing: [side_ok] without the clause about the cap *)
Record side_ok0 (host : hostg) (p : prepared) : Prop := {
  s0_flag : p_flag p = false;
  s0_host : gwf (host_c06 host);
  s0_pat : gwf (pat_c06 (p_pat p));
  s0_rc_nodup : NoDup (node_ids (p_rc p));
  s0_rc_simple : simple_edgesb (gedges (p_rc p)) = true;
  s0_rc_closed : forall a b x, In (a, b, x) (gedges (p_rc p)) -> In a (node_ids (p_rc p)) /\ In b (node_ids (p_rc p));
  s0_pat_rc : forall u, In u (node_ids (p_pat p)) -> In u (node_ids (p_rc p)) }.

Lemma side_okb0_ok host p : side_okb0 host p = true -> side_ok0 host p.
Proof.
  unfold side_okb0. intros H.
  repeat (apply andb_prop in H; let H' := fresh "B" in destruct H as [H H']).
  constructor.
  - apply negb_true_iff. exact H.
  - apply gwfb_spec. exact B4.
  - apply gwfb_spec. exact B3.
  - apply C03_Proof.nodupb_NoDup. exact B2.
  - exact B1.
  - intros a b x I. unfold closedb in B0. rewrite forallb_forall in B0. specialize (B0 _ I). simpl in B0.
    apply andb_prop in B0. destruct B0 as [Ba Bb]. split; apply LGraph.mem_spec; assumption.
  - intros u I. rewrite forallb_forall in B. apply LGraph.mem_spec. apply B. exact I.
Qed.

Lemma side_ok0_relabel sg pi (Hs : inj sg) (Hp : inj pi) (host : hostg) (p : prepared) :
  side_ok0 host p -> side_ok0 (relabel pi host) (relabel_prep sg p).
Proof.
  intros S. constructor; unfold relabel_prep; cbn [p_rc p_l p_r p_flag p_pat].
  - exact (s0_flag _ _ S).
  - rewrite host_c06_relabel. apply gwf_relabel; [exact Hp | exact (s0_host _ _ S)].
  - rewrite pat_c06_relabel. apply gwf_relabel; [exact Hs | exact (s0_pat _ _ S)].
  - rewrite (node_ids_relabel _ _ sg (p_rc p)). apply FinFun.Injective_map_NoDup; [exact Hs | exact (s0_rc_nodup _ _ S)].
  - unfold relabel; simpl. rewrite (simple_relabel sg Hs). exact (s0_rc_simple _ _ S).
  - intros a b x I. unfold relabel in I; simpl in I. apply in_map_iff in I. destruct I as ([[a0 b0] x0] & E & I).
    inversion E; subst. destruct (s0_rc_closed _ _ S a0 b0 _ I) as [Ia Ib].
    rewrite (node_ids_relabel _ _ sg (p_rc p)). split; apply in_map; assumption.
  - intros u I. rewrite (node_ids_relabel _ _ sg (p_pat p)) in I. apply in_map_iff in I. destruct I as (u0 & <- & I).
    rewrite (node_ids_relabel _ _ sg (p_rc p)). apply in_map. exact (s0_pat_rc _ _ S u0 I).
Qed.

Section WithThr.
Context {TH : Thr}.

Lemma side_ok_ok0 host p : side_ok host p -> side_ok0 host p.
Proof. intros [A B C D E F G I]. constructor; assumption. Qed.

Lemma side_ok_of0 host p : side_ok0 host p ->
  (C06_Model.lenN (enum_all host (p_pat p)) <= thr_val)%N -> side_ok host p.
Proof. intros [A B C E F G I] D. constructor; assumption. Qed.

(** the monitored boolean of the default-cap theorems implies the cap-free one *)
Lemma side_okb_okb0 host p : side_okb host p = true -> side_okb0 host p = true.
Proof.
  unfold side_okb, side_okb_with, side_okb0. intros H.
  repeat (apply andb_prop in H; let H' := fresh "B" in destruct H as [H H']).
  rewrite H, B5, B4, B2, B1, B0, B. reflexivity.
Qed.

Theorem glued_set_invariant_any_cap (host host' : hostg) (p p' : prepared) :
  side_ok0 host p -> side_ok0 host' p' ->
  same_graph host host' -> same_graph (p_rc p) (p_rc p') -> same_graph (p_pat p) (p_pat p') ->
  forall T, In T (glued_of 0%N host p) -> exists T', In T' (glued_of 0%N host' p') /\ obs_eq T T'.
Proof.
  intros S S' Hh Hr Hp T HT.
  pose proof (enum_all_count_any_order host host' (p_pat p) (p_pat p') Hh Hp
                (s0_host _ _ S) (s0_pat _ _ S) (s0_host _ _ S') (s0_pat _ _ S')) as Hcount.
  destruct (N.le_gt_cases (C06_Model.lenN (enum_all host (p_pat p))) thr_val) as [Hle|Hgt].
  - apply (glued_set_invariant host host' p p'); try assumption.
    + apply side_ok_of0; assumption.
    + apply side_ok_of0; [assumption|]. rewrite Hcount. exact Hle.
  - destruct (capped_results host p Hgt) as (_ & _ & G & _). rewrite G in HT. destruct HT.
Qed.

(** renumbering by (sg, pi) followed by any re-ordering of both inputs, any cap *)
Theorem glued_set_rewriting_any_cap (sg pi : N -> N) (Hs : inj sg) (Hp : inj pi)
        (host host'' : hostg) (p p'' : prepared) :
  side_ok0 (relabel pi host) (relabel_prep sg p) -> side_ok0 host'' p'' ->
  same_graph (relabel pi host) host'' -> same_graph (relabel sg (p_rc p)) (p_rc p'') ->
  same_graph (relabel sg (p_pat p)) (p_pat p'') ->
  (forall T, In T (glued_of 0%N host p) -> exists T'', In T'' (glued_of 0%N host'' p'') /\ obs_eq (relabel pi T) T'') /\
  (forall T'', In T'' (glued_of 0%N host'' p'') -> exists T, In T (glued_of 0%N host p) /\ obs_eq (relabel pi T) T'').
Proof.
  intros S. apply (set_rewriting side_ok0 (glued_of 0%N)); [exact glued_set_invariant_any_cap | | exact S].
  exact (glued_relabel 0%N sg pi Hs Hp host p (s0_flag _ _ S)).
Qed.

End WithThr.

(** non-vacuity: the premises hold for the halogen-exchange witness of proof/C05_Cap.v; under the cap 3 both result lists
    are empty, under the cap 4 (= the number of embeddings) there are 4 glued graphs *)
Example any_cap_examples :
  side_okb0 cx_host cx_p = true /\
  @glued_of (thr_of (Some 3%N)) 0%N cx_host cx_p = [] /\
  length (@glued_of (thr_of (Some 4%N)) 0%N cx_host cx_p) = 4%nat /\
  @side_okb (thr_of (Some 3%N)) cx_host cx_p = false /\ @side_okb (thr_of (Some 4%N)) cx_host cx_p = true.
Proof. repeat apply conj; vm_compute; reflexivity. Qed.

(** ** results of the component-aware and of the fallback strategy are results of the exhaustive strategy whenever the
    EXHAUSTIVE search is not capped ([side_ok]); nothing is asked of the component-aware search, which under a cap answers
    with its limit-free result or with nothing *)

Section WithThr2.
Context {TH : Thr}.

Theorem glued_subset_all_any_cap (host : hostg) (p : prepared) : side_ok host p ->
  (forall T, In T (glued_of 1%N host p) -> exists T', In T' (glued_of 0%N host p) /\ obs_eq T T') /\
  (forall T, In T (glued_of 2%N host p) -> exists T', In T' (glued_of 0%N host p) /\ obs_eq T T').
Proof.
  intros S. split.
  - apply (glued_subset_of_raw 1%N host p (or_intror (or_introl eq_refl)) S).
    exact (comp_subset_all_any_cap host (p_pat p) (so_host _ _ S) (so_pat _ _ S) (so_count _ _ S)).
  - apply (glued_subset_of_raw 2%N host p (or_intror (or_intror eq_refl)) S).
    exact (bt_subset_all_any_cap host (p_pat p) (so_host _ _ S) (so_pat _ _ S) (so_count _ _ S)).
Qed.

End WithThr2.

(** non-vacuity of [glued_subset_all_any_cap]: cap 4 = the number of embeddings of the exhaustive search: the premise holds,
    2 component-aware / fallback results among the 4 exhaustive ones; under cap 3 the premise fails — that is the refuted
    scenario of proof/C05_Cap.v *)
Example subset_results_any_cap_example :
  @side_okb (thr_of (Some 4%N)) cx_host cx_p = true /\
  length (@glued_of (thr_of (Some 4%N)) 1%N cx_host cx_p) = 2%nat /\ length (@glued_of (thr_of (Some 4%N)) 2%N cx_host cx_p) = 2%nat /\
  length (@glued_of (thr_of (Some 4%N)) 0%N cx_host cx_p) = 4%nat /\
  @side_okb (thr_of (Some 3%N)) cx_host cx_p = false.
Proof. repeat apply conj; vm_compute; reflexivity. Qed.
