(** C06 — the property on the caller's graphs: [is_mono] of the projections is [is_mono_sel] of
    the attribute dictionaries; exactness of the exhaustive strategy in that vocabulary; the
    selection is a SET of names (order / repetitions immaterial), and selecting more names can only
    remove matches. *)
From Coq Require Import List NArith Bool Arith Lia Permutation SetoidList.
From SK Require Import lib.LGraph lib.Mono lib.Reach model.C06_Model model.C06_Attrs lib.C06_Spec lib.C06_SelSpec
  proof.C06_All proof.C06_Attrs.
Import ListNotations.

Lemma gedges_project_in na ea (g : rgraph) a b x :
  In (a, b, x) (gedges (project na ea g)) -> exists x0, In (a, b, x0) (gedges g).
Proof.
  unfold project. simpl. rewrite in_map_iff. intros ([[a' b'] x'] & E & Hin).
  inversion E; subst. exists x'. exact Hin.
Qed.

Lemma gwf_project na ea (g : rgraph) : rgwf g -> gwf (project na ea g).
Proof.
  intros [Hnd He]. split; [rewrite node_ids_project; exact Hnd|].
  intros a b x Hin. rewrite node_ids_project.
  destruct (gedges_project_in _ _ _ _ _ _ Hin) as (x0 & Hin0). exact (He a b x0 Hin0).
Qed.

Theorem is_mono_project na ea (H P : rgraph) m :
  is_mono (project na ea H) (project na ea P) m <-> is_mono_sel na ea H P m.
Proof.
  unfold is_mono, is_mono_on, is_mono_sel. rewrite !node_ids_project.
  split; intros (A & B & C & D & E); (split; [exact A|split; [exact B|split; [exact C|split]]]).
  - intros p h Hin. destruct (D p h Hin) as [Hh Hnm]. split; [exact Hh|].
    assert (Hp : In p (node_ids P)) by (apply B; change p with (fst (p, h)); apply in_map; exact Hin).
    rewrite (lab_project na ea H h Hh), (lab_project na ea P p Hp), <- node_match_sel_proj in Hnm.
    apply node_match_sel_meaning. exact Hnm.
  - intros p h p' h' b I1 I2 Hadj.
    assert (Hadj' : LGraph.adj (project na ea P) p p' = Some (proj_e ea b)) by (rewrite adj_project, Hadj; reflexivity).
    destruct (E p h p' h' _ I1 I2 Hadj') as (b' & Hb' & Hem).
    rewrite adj_project in Hb'. destruct (LGraph.adj H h h') as [b0|] eqn:Eh; [|discriminate].
    simpl in Hb'. inversion Hb'; subst. exists b0. split; [reflexivity|].
    rewrite <- edge_match_sel_proj in Hem. apply edge_match_sel_meaning. exact Hem.
  - intros p h Hin. destruct (D p h Hin) as (Hh & Hk & Hc). split; [exact Hh|].
    assert (Hp : In p (node_ids P)) by (apply B; change p with (fst (p, h)); apply in_map; exact Hin).
    rewrite (lab_project na ea H h Hh), (lab_project na ea P p Hp), <- node_match_sel_proj.
    apply node_match_sel_meaning. split; assumption.
  - intros p h p' h' b I1 I2 Hadj. rewrite adj_project in Hadj.
    destruct (LGraph.adj P p p') as [b0|] eqn:Ep; [|discriminate]. simpl in Hadj. inversion Hadj; subst.
    destruct (E p h p' h' b0 I1 I2 Ep) as (b' & Hb' & Hk).
    exists (proj_e ea b'). split; [rewrite adj_project, Hb'; reflexivity|].
    rewrite <- edge_match_sel_proj. apply edge_match_sel_meaning. exact Hk.
Qed.

(** the exhaustive strategy on the caller's graphs, enumerator run with the closures *)
Theorem sel_all_exact na ea T strict (H P : rgraph) :
  rgwf H -> rgwf P ->
  (lenN (monos_sel na ea H P (node_ids H) (node_ids P)) <= T)%N ->
  let R := find_sel (monos_sel na ea H P) (Cfg 0 0 T strict false) na ea H P in
  (forall m, In m R -> is_mono_sel na ea H P m) /\
  (forall m, is_mono_sel na ea H P m -> exists m', In m' R /\ Permutation m m') /\
  NoDupA (@Permutation (N * N)) R.
Proof.
  intros HH HP Hlen R. subst R. rewrite find_sel_project.
  pose proof (gwf_project na ea H HH) as GH. pose proof (gwf_project na ea P HP) as GP.
  assert (Hc : vf2_contract (monos_on (project na ea H) (project na ea P)) (project na ea H) (project na ea P)
                 (node_ids (project na ea H)) (node_ids (project na ea P))).
  { apply monos_on_contract; [exact GP|exact (proj1 GH)|exact (proj1 GP)]. }
  assert (Hl : (lenN (monos_on (project na ea H) (project na ea P) (node_ids (project na ea H)) (node_ids (project na ea P))) <= T)%N).
  { rewrite monos_sel_project by (rewrite node_ids_project; apply incl_refl).
    rewrite !node_ids_project. exact Hlen. }
  destruct (all_exact _ T strict _ _ Hc Hl) as (S1 & S2 & S3).
  split; [|split; [|exact S3]].
  - intros m Hm. apply is_mono_project. exact (S1 m Hm).
  - intros m Hm. apply S2. apply is_mono_project. exact Hm.
Qed.

(** selecting more attribute names can only remove matches *)
Theorem is_mono_sel_monotone na na' ea ea' (H P : rgraph) m :
  incl na na' -> incl ea ea' -> is_mono_sel na' ea' H P m -> is_mono_sel na ea H P m.
Proof.
  intros Hn He (A & B & C & D & E). split; [exact A|split; [exact B|split; [exact C|split]]].
  - intros p h Hin. destruct (D p h Hin) as (X & Y & Z). split; [exact X|split; [|exact Z]].
    intros k Hk. apply Y. apply Hn. exact Hk.
  - intros p h p' h' b I1 I2 Hadj. destruct (E p h p' h' b I1 I2 Hadj) as (b' & X & Y).
    exists b'. split; [exact X|]. intros k Hk. apply Y. apply He. exact Hk.
Qed.

Theorem sel_refines na na' ea ea' T T' strict strict' (H P : rgraph) :
  rgwf H -> rgwf P -> incl na na' -> incl ea ea' ->
  (lenN (monos_sel na ea H P (node_ids H) (node_ids P)) <= T)%N ->
  (lenN (monos_sel na' ea' H P (node_ids H) (node_ids P)) <= T')%N ->
  forall m, In m (find_sel (monos_sel na' ea' H P) (Cfg 0 0 T' strict' false) na' ea' H P) ->
  exists m', In m' (find_sel (monos_sel na ea H P) (Cfg 0 0 T strict false) na ea H P) /\ Permutation m m'.
Proof.
  intros HH HP Hn He L1 L2 m Hm.
  destruct (sel_all_exact na' ea' T' strict' H P HH HP L2) as (S1 & _ & _).
  destruct (sel_all_exact na ea T strict H P HH HP L1) as (_ & S2 & _).
  apply S2. apply (is_mono_sel_monotone na na' ea ea'); [exact Hn|exact He|]. apply S1. exact Hm.
Qed.

(** ---------- a selection is a set of names: [find_sel] depends on it only through the two closures ---------- *)
Lemma saturate_ext (nb nb' : N -> list N) : (forall u, nb u = nb' u) ->
  forall fuel S, saturate nb fuel S = saturate nb' fuel S.
Proof.
  intros E. assert (Es : forall S, step nb S = step nb' S).
  { intros S. unfold step. f_equal. induction S as [|x r IH]; simpl; [reflexivity|]. rewrite E, IH. reflexivity. }
  induction fuel as [|f IH]; intros S; simpl; [reflexivity|].
  rewrite Es. destruct (length (step nb' S) =? length S); [reflexivity|apply IH].
Qed.

Lemma comps_shape_ext (g g' : graph) :
  node_ids g = node_ids g' -> (forall u, nbrs g u = nbrs g' u) -> comps g = comps g'.
Proof.
  intros En Eb. unfold comps. rewrite <- En.
  assert (El : length (gnodes g) = length (gnodes g')).
  { unfold node_ids in En. rewrite <- (map_length fst (gnodes g)), En. apply map_length. }
  assert (Ec : forall u, comp_of g u = comp_of g' u).
  { intros u. unfold comp_of. rewrite El, (saturate_ext _ _ Eb). reflexivity. }
  generalize (@nil N). generalize (node_ids g). intros todo.
  induction todo as [|u r IH]; intros seen; cbn [comps_go]; [reflexivity|].
  destruct (LGraph.mem u seen); [apply IH|].
  rewrite <- En, Ec, IH. reflexivity.
Qed.

Lemma comps_project_sel na ea na' ea' (g : rgraph) : comps (project na ea g) = comps (project na' ea' g).
Proof.
  apply comps_shape_ext.
  - rewrite !node_ids_project. reflexivity.
  - intros u. rewrite !nbrs_project. reflexivity.
Qed.

(** two selections whose closures give the same verdicts on the labels the two graphs carry *)
Section SelExt.
Variables (na na' ea ea' : list N) (H P : rgraph).
Hypothesis Hnm : forall h p, node_match_sel na' (rlab H h) (rlab P p) = node_match_sel na (rlab H h) (rlab P p).
Hypothesis Hem : forall u v u' v' b b', LGraph.adj P u v = Some b -> LGraph.adj H u' v' = Some b' ->
  edge_match_sel ea' b' b = edge_match_sel ea b' b.

Lemma monos_sel_ext hn pn : monos_sel na' ea' H P hn pn = monos_sel na ea H P hn pn.
Proof.
  unfold monos_sel, monos. apply extend_ext; [|intros; apply Hnm].
  intros p h ph. unfold edge_ok. destruct (LGraph.adj P p (fst ph)) eqn:E1, (LGraph.adj H h (snd ph)) eqn:E2; eauto.
Qed.

Lemma quick_pre_filter_sel_ext thr : quick_pre_filter_sel na' H P thr = quick_pre_filter_sel na H P thr.
Proof.
  unfold quick_pre_filter_sel. generalize 1%N. induction (node_ids P) as [|p ps IH]; intros est; simpl; [reflexivity|].
  rewrite (filter_ext _ (fun h => node_match_sel na (rlab H h) (rlab P p) && (rdegree P p <=? rdegree H h)%N))
    by (intros h; rewrite Hnm; reflexivity).
  destruct (lenN _ =? 0)%N; [reflexivity|].
  destruct (thr * 10000 <? _)%N; [reflexivity|]. apply IH.
Qed.

(** same enumerations, and [find] reads the graphs only through node ids, components and the pre-filter *)
Theorem find_sel_ext c :
  find_sel (monos_sel na' ea' H P) c na' ea' H P = find_sel (monos_sel na ea H P) c na ea H P.
Proof.
  unfold find_sel.
  rewrite (find_enum_ext (monos_sel na' ea' H P) (monos_sel na ea H P) (project na' ea' H) (project na' ea' P))
    by (intros; apply monos_sel_ext).
  apply find_graph_ext; rewrite ?node_ids_project; auto using comps_project_sel.
  rewrite <- !quick_pre_filter_sel_project. apply quick_pre_filter_sel_ext.
Qed.
End SelExt.

Lemma forallb_same_members {X} (f : X -> bool) l l' : incl l l' -> incl l' l -> forallb f l = forallb f l'.
Proof.
  intros A B. destruct (forallb f l) eqn:E1, (forallb f l') eqn:E2; try reflexivity.
  - rewrite forallb_forall in E1. assert (forallb f l' = true) by (apply forallb_forall; intros x Hx; apply E1, B, Hx). congruence.
  - rewrite forallb_forall in E2. assert (forallb f l = true) by (apply forallb_forall; intros x Hx; apply E2, A, Hx). congruence.
Qed.

(** order and repetitions of the names in node_attrs / edge_attrs are immaterial — for every
    configuration (strategy, limits, pre-filter), identical result LISTS *)
Theorem sel_same_members na na' ea ea' (H P : rgraph) c :
  incl na na' -> incl na' na -> incl ea ea' -> incl ea' ea ->
  find_sel (monos_sel na' ea' H P) c na' ea' H P = find_sel (monos_sel na ea H P) c na ea H P.
Proof.
  intros A B C D. apply find_sel_ext.
  - intros h p. unfold node_match_sel. f_equal. apply forallb_same_members; assumption.
  - intros u v u' v' b b' _ _. unfold edge_match_sel. apply forallb_same_members; assumption.
Qed.
