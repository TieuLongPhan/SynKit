(** C13 -- batched classification on the caller's graphs: BatchCluster.fit from no templates over ANY arrival order of the raw
    items, with any batch size and any sampler choices, puts two items into one class IFF their raw graphs are isomorphic. *)
From Coq Require Import List Permutation.
From SK Require Import lib.LGraph model.C13_Model model.C13_Trace proof.C13_Proof proof.C13_Iso
     proof.C13_Trace proof.C13_Raw.
Import ListNotations.
Local Open Scope nat_scope.

Theorem batch_any_order_raw (c : ccfg) (mode : attr_mode) (data data' : list ritem) (bs : option nat) (picks : list nat) :
  Permutation data data' ->
  length (cc_defs c) = length (cc_names c) ->
  (forall x, In x data -> NoDup (node_ids (ri_graph x))) ->
  (forall x y, In x data -> In y data -> raw_isomorphic c (ri_graph x) (ri_graph y) ->
               gc_key mode (mk_item c x) = gc_key mode (mk_item c y)) ->
  match bs with None => True | Some b => 1 <= b end ->
  let classes' := fst (fit (item_iso true (cc_defs c)) mode (map (mk_item c) data') [] bs picks) in
  forall i' j' x y, nth_error data' i' = Some x -> nth_error data' j' = Some y ->
    (nth_error classes' i' = nth_error classes' j' <-> raw_isomorphic c (ri_graph x) (ri_graph y)).
Proof.
  intros P EL Hnd Hattr Hbs classes' i' j' x y Hi Hj.
  destruct (raw_premises_perm c mode data data' P Hnd Hattr) as (Hnd' & Hattr').
  assert (Hrefl : forall it, In it (map (mk_item c) data') -> item_iso true (cc_defs c) it it = true).
  { intros it Hit. apply in_map_iff in Hit. destruct Hit as (r & <- & Hr). apply item_iso_refl, mk_item_wf; auto. }
  unfold classes'. rewrite (batch_equals_oneshot (item_iso true (cc_defs c)) mode (map (mk_item c) data') bs picks Hbs Hrefl).
  rewrite (nth_error_map_inj class_z _ i' j' class_z_inj).
  destruct (partition_raw c mode data' EL Hnd' Hattr') as (_ & H).
  destruct (H i' j' x y Hi Hj) as (ci & cj & E1 & E2 & Iff). rewrite E1, E2. rewrite <- Iff.
  split; [intros E; now inversion E|intros ->; reflexivity].
Qed.
