(** C18 — the reference enumerator of self-isomorphisms and the canonicaliser's minimal leaves have the same length:
    both are duplicate-free enumerations of the structure-preserving self-maps (compared through their value vectors on
    the assignment order). *)
From Coq Require Import List NArith ZArith Bool Arith Lia Permutation.
From SK Require Import lib.IRCore lib.IRSearch lib.C18_IRValid lib.C18_IRLeaves model.C18_Model
  proof.C18_Order proof.C18_Spec proof.C18_Graph proof.C18_Canon proof.C18_Label proof.C18_Aut proof.C18_Invariant
  proof.C18_Count proof.C18_Vf2.
Import ListNotations.

Theorem auts_count g lab p : wf g -> kinds_ok g -> arcs_ok g -> fst (canon_search g) = Some (lab, p) ->
  length (auts g) = length (min_leaves g).
Proof.
  intros Hw Hk Ha Hb.
  destruct (aut_count g lab p Hw Hk Ha Hb) as (Mnd & Miff & Mdet).
  destruct (auts_spec g Hw) as (And & Ain & Aout).
  pose proof (aut_order_perm g (proj1 Hw)) as Hp. set (ps := aut_order g) in *.
  pose proof (best_perm_nodes g lab p Hw Hb) as Ip.
  set (vecA := fun m : list (N * N) => map snd (rev m)).
  set (vecM := fun q : list N => map (seqmap p q) ps).
  assert (SeqOn : forall s v, In v p -> seqmap p (map s p) v = s v).
  { intros s v Hv. unfold seqmap. destruct (idx_in v p Hv) as [Hi Hn].
    rewrite (nth_indep _ v (s 0%N)) by (rewrite map_length; auto). rewrite map_nth. f_equal. exact Hn. }
  assert (VA : forall s, vecA (rev (combine ps (map s ps))) = map s ps).
  { intros s. unfold vecA. rewrite rev_involutive. apply map_snd_combine. rewrite map_length. auto. }
  assert (VM : forall s, vecM (map s p) = map s ps).
  { intros s. unfold vecM. apply map_ext_in. intros v Hv. apply SeqOn. apply Ip. apply (Permutation_in _ Hp Hv). }
  assert (P : Permutation (map vecA (auts g)) (map vecM (min_leaves g))).
  { apply NoDup_Permutation.
    - apply NoDup_map_inj_on; auto. intros m m' Hm Hm' E.
      destruct (Aout m Hm) as (s & _ & ->). destruct (Aout m' Hm') as (s' & _ & ->). rewrite !VA in E. rewrite E. reflexivity.
    - apply NoDup_map_inj_on; auto. intros q q' Hq Hq' E.
      apply Miff in Hq, Hq'. destruct Hq as (s & Hs & ->), Hq' as (s' & Hs' & ->). rewrite !VM in E.
      apply map_ext_in. intros v Hv. apply (proj1 map_ext_in_iff E). apply (Permutation_in _ (Permutation_sym Hp)). apply Ip. auto.
    - intros x. rewrite !in_map_iff. split.
      + intros (m & <- & Hm). destruct (Aout m Hm) as (s & Hs & ->). exists (map s p). split; [rewrite VA, VM; auto|].
        apply Miff. eauto.
      + intros (q & <- & Hq). apply Miff in Hq. destruct Hq as (s & Hs & ->).
        exists (rev (combine ps (map s ps))). split; [rewrite VA, VM; auto|]. apply Ain. auto. }
  apply Permutation_length in P. rewrite !map_length in P. exact P.
Qed.

Theorem vf2_count g lab p (c : nat) : wf g -> kinds_ok g -> arcs_ok g -> fst (canon_search g) = Some (lab, p) ->
  c = length (auts g) ->
  NoDup (auts g) /\
  (forall s, is_aut g s -> In (rev (combine (aut_order g) (map s (aut_order g)))) (auts g)) /\
  (forall m, In m (auts g) -> exists s, is_aut g s /\ m = rev (combine (aut_order g) (map s (aut_order g)))) /\
  c = length (min_leaves g).
Proof.
  intros Hw Hk Ha Hb Hc. destruct (auts_spec g Hw) as (H1 & H2 & H3).
  split; [exact H1|]. split; [exact H2|]. split; [exact H3|]. rewrite Hc. apply (auts_count g lab p); auto.
Qed.
