(** C10 — proofs: the networkx primitives of model/C10_Model.v seen through the two lookups
    [label] (node -> attribute dictionary) and [adj] (unordered pair -> edge dictionary).
    Everything later (hydrogen conversions, GML round trip) is proved through these views. *)
From Coq Require Import List NArith ZArith Bool Lia.
From SK Require Import lib.LGraph lib.StrJoin model.C10_Model.
Import ListNotations.
Local Open Scope Z_scope.

(** unordered-pair test used by find_edge / upd_edge: {a,b} = {u,v} *)
Definition pair_eqb (a b u v : N) : bool := (N.eqb a u && N.eqb b v) || (N.eqb a v && N.eqb b u).

Lemma pair_eqb_spec a b u v : pair_eqb a b u v = true <-> (a = u /\ b = v) \/ (a = v /\ b = u).
Proof.
  unfold pair_eqb. rewrite orb_true_iff, !andb_true_iff, !N.eqb_eq. tauto.
Qed.
Lemma pair_eqb_swap a b u v : pair_eqb a b u v = pair_eqb a b v u.
Proof. unfold pair_eqb. apply orb_comm. Qed.
Lemma pair_eqb_sym a b u v : pair_eqb a b u v = pair_eqb u v a b.
Proof.
  unfold pair_eqb. rewrite (N.eqb_sym a u), (N.eqb_sym b v), (N.eqb_sym a v), (N.eqb_sym b u).
  rewrite (andb_comm (N.eqb v a)). reflexivity.
Qed.
Lemma pair_eqb_swap_l a b u v : pair_eqb a b u v = pair_eqb b a u v.
Proof. rewrite pair_eqb_sym, pair_eqb_swap. apply pair_eqb_sym. Qed.
Lemma pair_eqb_refl a b : pair_eqb a b a b = true.
Proof. unfold pair_eqb. rewrite !N.eqb_refl. reflexivity. Qed.
Lemma pair_eqb_trans a b u v x y : pair_eqb a b u v = true -> pair_eqb a b x y = pair_eqb u v x y.
Proof.
  intros H. apply pair_eqb_spec in H. destruct H as [[-> ->]|[-> ->]]; [reflexivity|apply pair_eqb_swap_l].
Qed.

Lemma find_edge_cons (u v a b : N) (x : eatt) r :
  find_edge u v ((a, b, x) :: r) = if pair_eqb a b u v then Some x else find_edge u v r.
Proof. reflexivity. Qed.

Lemma na_update_empty a : na_update na_empty a = a.
Proof. destruct a; reflexivity. Qed.
Lemma orelse_idem {A} (x : option A) : orelse x x = x.
Proof. destruct x; reflexivity. Qed.
Lemma ea_update_idem a : ea_update a a = a.
Proof. destruct a as [o s]; unfold ea_update; simpl. rewrite !orelse_idem. reflexivity. Qed.

Lemma assoc_app {V} k (l1 l2 : list (N * V)) :
  assoc k (l1 ++ l2) = match assoc k l1 with Some v => Some v | None => assoc k l2 end.
Proof. induction l1 as [|[k' v] r IH]; simpl; [reflexivity|]. destruct (N.eqb k k'); auto. Qed.

Lemma assoc_none_iff {V} k (l : list (N * V)) : assoc k l = None <-> ~ In k (map fst l).
Proof.
  induction l as [|[k' v] r IH]; simpl; [tauto|].
  destruct (N.eqb_spec k k') as [->|Hne].
  - split; [discriminate|]. intros H. exfalso. apply H. left. reflexivity.
  - rewrite IH. split; [intros H [E|E]; [congruence|tauto]|tauto].
Qed.
Lemma assoc_some_in {V} k (l : list (N * V)) v : assoc k l = Some v -> In k (map fst l).
Proof. intros H. destruct (in_dec N.eq_dec k (map fst l)) as [i|n]; [exact i|]. apply assoc_none_iff in n. congruence. Qed.

Lemma assoc_upd_node m n f l :
  assoc m (upd_node n f l) = if N.eqb m n then option_map f (assoc m l) else assoc m l.
Proof.
  induction l as [|[k a] r IH]; simpl; [destruct (N.eqb m n); reflexivity|].
  destruct (N.eqb_spec k n) as [->|Hkn]; simpl.
  - destruct (N.eqb_spec m n) as [->|Hmn]; simpl; reflexivity.
  - destruct (N.eqb_spec m k) as [->|Hmk].
    + destruct (N.eqb_spec k n); [congruence|reflexivity].
    + exact IH.
Qed.
Lemma fst_upd_node n f l : map fst (upd_node n f l) = map fst l.
Proof. induction l as [|[k a] r IH]; simpl; [reflexivity|]. destruct (N.eqb k n); simpl; f_equal; exact IH. Qed.
Lemma upd_node_id n f l : (forall a, f a = a) -> upd_node n f l = l.
Proof. intros Hf. induction l as [|[k a] r IH]; simpl; [reflexivity|]. destruct (N.eqb k n); rewrite ?Hf, ?IH; reflexivity. Qed.
Lemma upd_node_absent n f l : ~ In n (map fst l) -> upd_node n f l = l.
Proof.
  induction l as [|[k a] r IH]; simpl; [reflexivity|]. intros H.
  destruct (N.eqb_spec k n); [exfalso; apply H; left; assumption|]. rewrite IH; tauto.
Qed.

Lemma has_node_label (g : gr) n : has_node g n = true <-> exists a, label g n = Some a.
Proof.
  unfold has_node. destruct (label g n) as [a|]; split.
  - intros _. exists a. reflexivity.
  - reflexivity.
  - discriminate.
  - intros [a H]. discriminate.
Qed.
Lemma has_node_in (g : gr) n : has_node g n = true <-> In n (node_ids g).
Proof.
  unfold has_node, label, node_ids. destruct (assoc n (gnodes g)) eqn:E.
  - split; [intros _; eapply assoc_some_in; eauto|reflexivity].
  - split; [discriminate|]. intros H. apply assoc_none_iff in E. tauto.
Qed.
Lemma has_node_false (g : gr) n : has_node g n = false <-> label g n = None.
Proof. unfold has_node. destruct (label g n); split; congruence. Qed.

Lemma label_set_node (g : gr) n f m :
  label (set_node g n f) m = if N.eqb m n then option_map f (label g m) else label g m.
Proof. apply assoc_upd_node. Qed.
Lemma adj_set_node (g : gr) n f u v : adj (set_node g n f) u v = adj g u v.
Proof. reflexivity. Qed.
Lemma gedges_set_node (g : gr) n f : gedges (set_node g n f) = gedges g.
Proof. reflexivity. Qed.
Lemma node_ids_set_node (g : gr) n f : node_ids (set_node g n f) = node_ids g.
Proof. apply fst_upd_node. Qed.
Lemma has_node_set_node (g : gr) n f m : has_node (set_node g n f) m = has_node g m.
Proof. unfold has_node. rewrite label_set_node. destruct (N.eqb m n), (label g m); reflexivity. Qed.

Lemma label_add_node (g : gr) n a m :
  label (add_node g n a) m =
  if N.eqb m n then Some (match label g n with Some old => na_update a old | None => a end) else label g m.
Proof.
  unfold add_node, has_node. destruct (label g n) as [old|] eqn:E.
  - rewrite label_set_node. destruct (N.eqb_spec m n) as [->|]; [rewrite E|]; reflexivity.
  - unfold label in *. simpl. rewrite assoc_app. simpl.
    destruct (N.eqb_spec m n) as [->|]; [rewrite E; reflexivity|]. destruct (assoc m (gnodes g)); reflexivity.
Qed.
Lemma gedges_add_node (g : gr) n a : gedges (add_node g n a) = gedges g.
Proof. unfold add_node. destruct (has_node g n); reflexivity. Qed.
Lemma adj_add_node (g : gr) n a u v : adj (add_node g n a) u v = adj g u v.
Proof. unfold adj. rewrite gedges_add_node. reflexivity. Qed.
Lemma has_node_add_node (g : gr) n a m : has_node (add_node g n a) m = N.eqb m n || has_node g m.
Proof. unfold has_node at 1. rewrite label_add_node. unfold has_node. destruct (N.eqb m n); reflexivity. Qed.
Lemma add_node_fresh (g : gr) n a : has_node g n = false -> add_node g n a = LG (gnodes g ++ [(n, a)]) (gedges g).
Proof. unfold add_node. intros ->. reflexivity. Qed.
Lemma gnodes_add_node_empty (g : gr) n : has_node g n = true -> gnodes (add_node g n na_empty) = gnodes g.
Proof. unfold add_node. intros ->. simpl. apply upd_node_id. apply na_update_empty. Qed.
Lemma node_ids_add_node (g : gr) n a :
  node_ids (add_node g n a) = if has_node g n then node_ids g else node_ids g ++ [n].
Proof.
  unfold add_node. destruct (has_node g n); [apply node_ids_set_node|].
  unfold node_ids. simpl. rewrite map_app. reflexivity.
Qed.

(** ** find_edge on updated / extended lists *)
Lemma find_edge_app u v (l1 l2 : list (N * N * eatt)) :
  find_edge u v (l1 ++ l2) = match find_edge u v l1 with Some x => Some x | None => find_edge u v l2 end.
Proof.
  induction l1 as [|[[a b] x] r IH]; [reflexivity|]. simpl app. rewrite !find_edge_cons.
  destruct (pair_eqb a b u v); auto.
Qed.
Lemma find_edge_upd x y u v f es :
  find_edge x y (upd_edge u v f es) = if pair_eqb u v x y then option_map f (find_edge x y es) else find_edge x y es.
Proof.
  induction es as [|[[a b] e] r IH]; [simpl; destruct (pair_eqb u v x y); reflexivity|].
  simpl upd_edge. fold (pair_eqb a b u v). destruct (pair_eqb a b u v) eqn:E.
  - rewrite !find_edge_cons. rewrite (pair_eqb_trans _ _ _ _ x y E).
    destruct (pair_eqb u v x y); reflexivity.
  - rewrite !find_edge_cons. destruct (pair_eqb a b x y) eqn:E2.
    + destruct (pair_eqb u v x y) eqn:E3; [|reflexivity].
      exfalso. rewrite (pair_eqb_sym u v x y) in E3. rewrite (pair_eqb_sym a b x y) in E2.
      rewrite (pair_eqb_trans _ _ _ _ u v E2) in E3. rewrite pair_eqb_sym in E3. rewrite pair_eqb_sym in E. congruence.
    + exact IH.
Qed.

Definition ends_exist (g : gr) (u v : N) : gr := add_node (add_node g u na_empty) v na_empty.
Lemma label_add_node_empty (g : gr) n m :
  label (add_node g n na_empty) m = if N.eqb m n then Some (dflt (label g m) na_empty) else label g m.
Proof.
  rewrite label_add_node. destruct (N.eqb_spec m n) as [->|]; [|reflexivity].
  destruct (label g n); simpl; rewrite ?na_update_empty; reflexivity.
Qed.
Lemma label_ends_exist (g : gr) u v m :
  label (ends_exist g u v) m = if N.eqb m u || N.eqb m v then Some (dflt (label g m) na_empty) else label g m.
Proof.
  unfold ends_exist. rewrite !label_add_node_empty. destruct (N.eqb m u), (N.eqb m v); reflexivity.
Qed.
Lemma gedges_ends_exist (g : gr) u v : gedges (ends_exist g u v) = gedges g.
Proof. unfold ends_exist. rewrite !gedges_add_node. reflexivity. Qed.

Lemma add_edge_unfold (g : gr) u v a :
  add_edge g u v a =
  let g1 := ends_exist g u v in
  if has_edge g1 u v then LG (gnodes g1) (upd_edge u v (ea_update a) (gedges g1))
  else LG (gnodes g1) (gedges g1 ++ [(u, v, a)]).
Proof. reflexivity. Qed.

Lemma label_add_edge (g : gr) u v a m :
  label (add_edge g u v a) m = if N.eqb m u || N.eqb m v then Some (dflt (label g m) na_empty) else label g m.
Proof.
  rewrite add_edge_unfold. cbv zeta. destruct (has_edge _ u v); unfold label; simpl; apply label_ends_exist.
Qed.
Lemma has_node_add_edge (g : gr) u v a m : has_node (add_edge g u v a) m = N.eqb m u || N.eqb m v || has_node g m.
Proof. unfold has_node at 1. rewrite label_add_edge. unfold has_node. destruct (N.eqb m u || N.eqb m v); reflexivity. Qed.

Lemma adj_add_edge (g : gr) u v a x y :
  adj (add_edge g u v a) x y =
  if pair_eqb u v x y then Some (match adj g u v with Some old => ea_update a old | None => a end) else adj g x y.
Proof.
  rewrite add_edge_unfold. cbv zeta. unfold has_edge, adj. rewrite gedges_ends_exist.
  destruct (find_edge u v (gedges g)) as [old|] eqn:E; simpl.
  - rewrite find_edge_upd. destruct (pair_eqb u v x y) eqn:P; [|reflexivity].
    assert (find_edge x y (gedges g) = Some old) as ->; [|reflexivity].
    apply pair_eqb_spec in P. destruct P as [[-> ->]|[-> ->]]; [exact E|]. rewrite find_edge_sym. exact E.
  - rewrite find_edge_app. simpl. fold (pair_eqb u v x y).
    destruct (pair_eqb u v x y) eqn:P.
    + assert (find_edge x y (gedges g) = None) as ->; [|reflexivity].
      apply pair_eqb_spec in P. destruct P as [[-> ->]|[-> ->]]; [exact E|]. rewrite find_edge_sym. exact E.
    + destruct (find_edge x y (gedges g)); reflexivity.
Qed.

(** when both end points exist the node list is untouched *)
Lemma gnodes_add_edge_exist (g : gr) u v a :
  has_node g u = true -> has_node g v = true -> gnodes (add_edge g u v a) = gnodes g.
Proof.
  intros Hu Hv. rewrite add_edge_unfold. cbv zeta.
  assert (gnodes (ends_exist g u v) = gnodes g) as E.
  { unfold ends_exist. rewrite gnodes_add_node_empty; [apply gnodes_add_node_empty; exact Hu|].
    rewrite has_node_add_node, Hv. apply orb_true_r. }
  destruct (has_edge _ u v); simpl; exact E.
Qed.

Lemma assoc_filter_ne {V} m n (l : list (N * V)) :
  assoc m (filter (fun p => negb (N.eqb (fst p) n)) l) = if N.eqb m n then None else assoc m l.
Proof.
  induction l as [|[k a] r IH]; simpl; [destruct (N.eqb m n); reflexivity|].
  destruct (N.eqb_spec k n) as [->|Hkn]; simpl.
  - rewrite IH. destruct (N.eqb_spec m n); reflexivity.
  - rewrite IH. destruct (N.eqb_spec m k) as [->|]; [|reflexivity].
    destruct (N.eqb_spec k n); [congruence|reflexivity].
Qed.
Lemma label_remove_node (g : gr) n m : label (remove_node g n) m = if N.eqb m n then None else label g m.
Proof. apply assoc_filter_ne. Qed.
Lemma find_edge_filter_ne u v n (es : list (N * N * eatt)) :
  find_edge u v (filter (fun e : N * N * eatt => let '(a, b, _) := e in negb (N.eqb a n || N.eqb b n)) es) =
  if N.eqb u n || N.eqb v n then None else find_edge u v es.
Proof.
  induction es as [|[[a b] x] r IH]; [simpl; destruct (N.eqb u n || N.eqb v n); reflexivity|].
  simpl filter. destruct (N.eqb a n || N.eqb b n) eqn:E; simpl negb; cbv iota.
  - rewrite IH, find_edge_cons. destruct (N.eqb u n || N.eqb v n) eqn:E2; [reflexivity|].
    destruct (pair_eqb a b u v) eqn:P; [|reflexivity].
    exfalso. apply pair_eqb_spec in P. destruct P as [[-> ->]|[-> ->]]; [congruence|]. rewrite orb_comm in E. congruence.
  - rewrite !find_edge_cons, IH. destruct (pair_eqb a b u v) eqn:P; [|reflexivity].
    apply pair_eqb_spec in P. destruct P as [[-> ->]|[-> ->]]; [rewrite E; reflexivity|]. rewrite orb_comm, E. reflexivity.
Qed.
Lemma adj_remove_node (g : gr) n u v :
  adj (remove_node g n) u v = if N.eqb u n || N.eqb v n then None else adj g u v.
Proof. apply find_edge_filter_ne. Qed.

Lemma in_nbrs (g : gr) u w : In w (nbrs g u) <-> exists x, In (u, w, x) (gedges g) \/ In (w, u, x) (gedges g).
Proof.
  unfold nbrs. rewrite in_flat_map. split.
  - intros ([[a b] x] & Hin & H). destruct (N.eqb_spec a u) as [->|].
    + destruct H as [<-|[]]. exists x. left. exact Hin.
    + destruct (N.eqb_spec b u) as [->|]; [|destruct H]. destruct H as [<-|[]]. exists x. right. exact Hin.
  - intros (x & [H|H]).
    + exists (u, w, x). split; [exact H|]. rewrite N.eqb_refl. left. reflexivity.
    + exists (w, u, x). split; [exact H|]. destruct (N.eqb_spec w u) as [->|]; [left; reflexivity|].
      rewrite N.eqb_refl. left. reflexivity.
Qed.
