(** C06 — [comps] (model of nx.connected_components) lists exactly the
    connectivity classes: every entry is a non-empty duplicate-free class, the entries
    cover the node list, entries at different positions are disjoint.  Stdlib lists. *)
From Coq Require Import List NArith Bool Arith Lia Permutation Relations Operators_Properties.
From SK Require Import lib.LGraph lib.Reach lib.C01_GraphLemmas model.C06_Model lib.C06_Spec.
Import ListNotations.

Lemma gconn_refl (g : graph) x : gconn g x x.
Proof. apply rt_refl. Qed.

Lemma gconn_trans (g : graph) x y z : gconn g x y -> gconn g y z -> gconn g x z.
Proof. apply rt_trans. Qed.

Lemma adjacent_sym (g : graph) x y : adjacent g x y -> adjacent g y x.
Proof. unfold adjacent. rewrite (LGraph.adj_sym g y x). auto. Qed.

Lemma gconn_sym (g : graph) x y : gconn g x y -> gconn g y x.
Proof.
  induction 1 as [x y Hs| |x y z _ IH1 _ IH2].
  - apply rt_step. apply adjacent_sym. exact Hs.
  - apply rt_refl.
  - eapply rt_trans; eauto.
Qed.

Lemma gconn_adj (g : graph) x y : LGraph.adj g x y <> None -> gconn g x y.
Proof. intros Hs. apply rt_step. exact Hs. Qed.

Lemma adjacent_nodes (g : graph) x y : gwf g -> adjacent g x y -> In x (node_ids g) /\ In y (node_ids g).
Proof.
  intros [_ Hg] Ha. unfold adjacent in Ha. destruct (LGraph.adj g x y) as [b|] eqn:E; [|congruence].
  apply find_edge_some_in in E. destruct E as [E|E]; apply Hg in E; tauto.
Qed.

Lemma gconn_nodes (g : graph) x y : gwf g -> gconn g x y -> In x (node_ids g) -> In y (node_ids g).
Proof.
  intros Hg Hc. induction Hc as [x y Hs| |x y z _ IH1 _ IH2]; auto.
  intros _. apply (adjacent_nodes g x y Hg Hs).
Qed.

Lemma conn_gconn (g : graph) u x : conn (nbrs g) [u] x <-> gconn g u x.
Proof.
  split.
  - induction 1 as [x [<-|[]]|y z _ IH I].
    + apply rt_refl.
    + eapply rt_trans; [exact IH|]. apply rt_step. apply in_nbrs. exact I.
  - intros Hc. apply clos_rt_rtn1_iff in Hc. induction Hc as [|y z Hs _ IH].
    + apply conn_seed. left. reflexivity.
    + eapply conn_step; [exact IH|]. apply in_nbrs. exact Hs.
Qed.

Lemma comp_of_spec (g : graph) u : gwf g -> In u (node_ids g) ->
  forall x, In x (comp_of g u) <-> gconn g u x.
Proof.
  intros Hg Hu x. unfold comp_of.
  assert (Hin : forall a b, In b (nbrs g a) -> In b (node_ids g)).
  { intros a b I. apply in_nbrs in I. apply (adjacent_nodes g a b Hg I). }
  pose proof (@saturate_fuel (node_ids g) (nbrs g) Hin (S (length (gnodes g))) [u]) as Hf.
  destruct (saturate (nbrs g) (S (length (gnodes g))) [u]) as [R|] eqn:E.
  - rewrite <- conn_gconn. apply (@saturate_spec (nbrs g) [u] (S (length (gnodes g))) [u] R); auto.
    intros y I. apply conn_seed. exact I.
  - exfalso. apply Hf; auto.
    + constructor; [intros []|constructor].
    + intros y [<-|[]]. exact Hu.
    + unfold node_ids. rewrite map_length. simpl. lia.
Qed.

Definition comp_list (g : graph) (u : N) : list N :=
  filter (fun x => LGraph.mem x (comp_of g u)) (node_ids g).

Lemma comp_list_spec (g : graph) u : gwf g -> In u (node_ids g) ->
  forall x, In x (comp_list g u) <-> gconn g u x.
Proof.
  intros Hg Hu x. unfold comp_list. rewrite filter_In, LGraph.mem_spec, comp_of_spec by assumption.
  split; [tauto|]. intros Hc. split; [|exact Hc]. eapply gconn_nodes; eauto.
Qed.

Definition closed (g : graph) (seen : list N) : Prop := forall x y, In x seen -> gconn g x y -> In y seen.

Lemma comps_go_spec (g : graph) : gwf g -> forall todo seen,
  incl todo (node_ids g) -> closed g seen ->
  let cs := comps_go g todo seen in
  (forall c, In c cs -> exists u, In u (node_ids g) /\ c = comp_list g u) /\
  (forall x, In x todo -> In x seen \/ exists c, In c cs /\ In x c) /\
  (forall c x, In c cs -> In x c -> ~ In x seen) /\
  (forall i j ci cj x, nth_error cs i = Some ci -> nth_error cs j = Some cj -> In x ci -> In x cj -> i = j).
Proof.
  intros Hg. induction todo as [|u r IH]; intros seen Hincl Hcl; cbn [comps_go].
  - split; [intros c []|]. split; [intros x []|]. split; [intros c x []|].
    intros [|i] j ci cj x E; discriminate.
  - assert (Hu : In u (node_ids g)) by (apply Hincl; left; reflexivity).
    assert (Hr : incl r (node_ids g)) by (intros y I; apply Hincl; right; exact I).
    destruct (LGraph.mem u seen) eqn:Em.
    + apply LGraph.mem_spec in Em. destruct (IH seen Hr Hcl) as (A & B & C & D).
      split; [exact A|]. split; [|split; [exact C|exact D]].
      intros x [<-|I]; [left; exact Em|apply B; exact I].
    + assert (Hnot : ~ In u seen) by (rewrite <- LGraph.mem_spec; congruence).
      fold (comp_list g u).
      assert (Hcl' : closed g (comp_of g u ++ seen)).
      { intros x y I Hc. apply in_or_app. apply in_app_or in I. destruct I as [I|I].
        - left. apply comp_of_spec; auto. apply comp_of_spec in I; auto. eapply gconn_trans; eauto.
        - right. eapply Hcl; eauto. }
      destruct (IH (comp_of g u ++ seen) Hr Hcl') as (A & B & C & D).
      assert (Hfresh : forall x, In x (comp_list g u) -> ~ In x seen).
      { intros x I Is. apply comp_list_spec in I; auto. apply Hnot. eapply Hcl; [exact Is|]. apply gconn_sym. exact I. }
      split; [|split; [|split]].
      * intros c [<-|I]; [exists u; auto|apply A; exact I].
      * intros x [<-|I].
        -- right. exists (comp_list g u). split; [left; reflexivity|]. apply comp_list_spec; auto. apply gconn_refl.
        -- destruct (B x I) as [Is|(c & Ic & Ix)].
           ++ apply in_app_or in Is. destruct Is as [Is|Is]; [|left; exact Is].
              right. exists (comp_list g u). split; [left; reflexivity|].
              apply comp_list_spec; auto. apply comp_of_spec in Is; auto.
           ++ right. exists c. split; [right; exact Ic|exact Ix].
      * intros c x [<-|I] Ix; [apply Hfresh; exact Ix|].
        intros Is. apply (C c x I Ix). apply in_or_app. right. exact Is.
      * assert (Hsep : forall cj x, In cj (comps_go g r (comp_of g u ++ seen)) -> In x (comp_list g u) -> In x cj -> False).
        { intros cj x Icj I1 I2. apply (C cj x Icj I2). apply in_or_app. left.
          apply comp_of_spec; auto. apply comp_list_spec in I1; auto. }
        intros [|i] [|j] ci cj x Ei Ej Ii Ij; cbn [nth_error] in Ei, Ej.
        -- reflexivity.
        -- exfalso. inversion Ei; subst ci. apply nth_error_In in Ej. eapply Hsep; eauto.
        -- exfalso. inversion Ej; subst cj. apply nth_error_In in Ei. eapply Hsep; eauto.
        -- f_equal. eapply D; eauto.
Qed.

Lemma comps_all (g : graph) : gwf g ->
  (forall c, In c (comps g) -> exists u, In u (node_ids g) /\ c = comp_list g u) /\
  (forall x, In x (node_ids g) -> exists c, In c (comps g) /\ In x c) /\
  (forall i j ci cj x, nth_error (comps g) i = Some ci -> nth_error (comps g) j = Some cj -> In x ci -> In x cj -> i = j).
Proof.
  intros Hg. destruct (comps_go_spec g Hg (node_ids g) [] (incl_refl _)) as (A & B & _ & D).
  { intros x y []. }
  split; [exact A|]. split; [|exact D].
  intros x I. destruct (B x I) as [[]|Hx]. exact Hx.
Qed.

(** every listed component is a non-empty, duplicate-free sublist of the node list and a full connectivity class *)
Theorem comps_class (g : graph) : gwf g -> forall c, In c (comps g) ->
  c <> [] /\ NoDup c /\ incl c (node_ids g) /\ (forall x y, In x c -> (In y c <-> gconn g x y)).
Proof.
  intros Hg c Ic. destruct (comps_all g Hg) as (A & _ & _). destruct (A c Ic) as (u & Hu & ->).
  assert (Iu : In u (comp_list g u)) by (apply comp_list_spec; auto; apply gconn_refl).
  split; [intros E; rewrite E in Iu; destruct Iu|].
  split; [apply NoDup_filter; apply Hg|].
  split; [intros x I; apply filter_In in I; tauto|].
  intros x y Ix. rewrite !comp_list_spec in * by assumption. split.
  - intros Iy. eapply gconn_trans; [apply gconn_sym; exact Ix|exact Iy].
  - intros Hxy. eapply gconn_trans; eauto.
Qed.

Theorem comps_cover (g : graph) : gwf g -> forall x, In x (node_ids g) -> exists c, In c (comps g) /\ In x c.
Proof. intros Hg. apply (comps_all g Hg). Qed.

Theorem comps_disjoint (g : graph) : gwf g -> forall i j ci cj x,
  nth_error (comps g) i = Some ci -> nth_error (comps g) j = Some cj -> In x ci -> In x cj -> i = j.
Proof. intros Hg. apply (comps_all g Hg). Qed.

(** value form of disjointness, and the list of components has no repetition *)
Lemma comps_disjoint_val (g : graph) : gwf g -> forall c c' x, In c (comps g) -> In c' (comps g) -> In x c -> In x c' -> c = c'.
Proof.
  intros Hg c c' x Ic Ic' Ix Ix'. apply In_nth_error in Ic. apply In_nth_error in Ic'.
  destruct Ic as (i & Ei). destruct Ic' as (j & Ej).
  assert (i = j) by (eapply comps_disjoint; eauto). subst j. congruence.
Qed.

Lemma comps_NoDup (g : graph) : gwf g -> NoDup (comps g).
Proof.
  intros Hg. apply NoDup_nth_error. intros i j Hi E.
  destruct (nth_error (comps g) i) as [c|] eqn:Ei; [|apply nth_error_None in Ei; lia].
  destruct (comps_class g Hg c (nth_error_In _ _ Ei)) as (Hne & _).
  destruct c as [|x c]; [congruence|].
  eapply (comps_disjoint g Hg i j); eauto; left; reflexivity.
Qed.
