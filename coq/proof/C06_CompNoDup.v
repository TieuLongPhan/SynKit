(** C06 — the limit-free component-aware result has no duplicates
    (no two entries are equal as sets of pairs).  Stdlib lists. *)
From Coq Require Import List NArith Bool Arith Lia Permutation SetoidList Relations Morphisms.
From SK Require Import lib.LGraph lib.Mono lib.Reach lib.C01_GraphLemmas model.C06_Model lib.C06_Spec
  proof.C06_All proof.C06_Comp proof.C06_Comps proof.C06_CompSem.
Import ListNotations.

(** ---------- generic facts ---------- *)
Section Generic.
Context {X Y : Type} (eqB : Y -> Y -> Prop) {EB : Equivalence eqB}.

Lemma NoDupA_flat_map (f : X -> list Y) l :
  NoDup l -> (forall x, In x l -> NoDupA eqB (f x)) ->
  (forall x x' y y', In x l -> In x' l -> In y (f x) -> In y' (f x') -> eqB y y' -> x = x') ->
  NoDupA eqB (flat_map f l).
Proof.
  induction l as [|x l IH]; simpl; intros Hnd Hf Hx; [constructor|].
  inversion Hnd as [|? ? Hnot Hnd']; subst.
  apply NoDupA_app; auto.
  - apply IH; auto. intros a a' y y' Ia Ia'. apply Hx; right; assumption.
  - intros y I1 I2. apply InA_alt in I1. destruct I1 as (y0 & E0 & I0).
    apply InA_alt in I2. destruct I2 as (y1 & E1 & I1). apply in_flat_map in I1. destruct I1 as (x' & Ix' & I1).
    assert (x = x').
    { apply (Hx x x' y0 y1); auto. etransitivity; [symmetry; exact E0|exact E1]. }
    subst x'. contradiction.
Qed.

Lemma NoDupA_in_eq (l : list Y) x y : NoDupA eqB l -> In x l -> In y l -> eqB x y -> x = y.
Proof.
  induction 1 as [|a l Hnot _ IH]; intros Ix Iy E; [destruct Ix|].
  destruct Ix as [<-|Ix], Iy as [<-|Iy]; auto.
  - exfalso. apply Hnot. apply InA_alt. exists y. auto.
  - exfalso. apply Hnot. apply InA_alt. exists x. split; [symmetry; exact E|exact Ix].
Qed.

Lemma NoDupA_NoDup (l : list Y) : NoDupA eqB l -> NoDup l.
Proof.
  induction 1 as [|a l Hnot _ IH]; constructor; auto.
  intros I. apply Hnot. apply InA_alt. exists a. split; [reflexivity|exact I].
Qed.
End Generic.

Definition eqm (a b : nat * mapping) : Prop := Permutation (snd a) (snd b).
#[local] Instance eqm_equiv : Equivalence eqm.
Proof.
  split.
  - intros a. apply Permutation_refl.
  - intros a b. apply Permutation_sym.
  - intros a b c. apply Permutation_trans.
Qed.

Lemma map_fst_index_from {X} (l : list X) k : map fst (index_from k l) = seq k (length l).
Proof. revert k. induction l as [|x l IH]; intros k; simpl; [reflexivity|]. f_equal. apply IH. Qed.

Lemma NoDup_index_from {X} (l : list X) k : NoDup (index_from k l).
Proof. eapply NoDup_map_inv. rewrite map_fst_index_from. apply seq_NoDup. Qed.

Lemma NoDupA_map_pair (i : nat) (L : list mapping) :
  NoDupA (@Permutation (N * N)) L -> NoDupA eqm (map (pair i) L).
Proof.
  induction 1 as [|m L Hnot _ IH]; simpl; constructor; auto.
  intros I. apply Hnot. apply InA_alt in I. destruct I as ([i' m'] & E & I).
  apply in_map_iff in I. destruct I as (m'' & [= <- <-] & I). apply InA_alt. exists m''. auto.
Qed.

Section Sem.
Variable enum : list N -> list N -> list mapping.
Variables H P : graph.
Hypothesis HwfH : gwf H.
Hypothesis HwfP : gwf P.
Hypothesis Hor : oracle_ok enum H P.

(** what membership in a per-component list gives *)
Lemma percc_facts pc j m : In pc (comps P) -> In (j, m) (percc_of enum H pc) ->
  exists hc, nth_error (comps H) j = Some hc /\ In m (enum hc pc) /\ is_mono_on H P hc pc m.
Proof.
  intros Ipc I. apply (in_percc_of enum H) in I. destruct I as (hc & Ej & Hle & Im).
  exists hc. split; [exact Ej|]. split; [exact Im|].
  apply (proj2 Hor hc pc); auto. eapply nth_error_In; eauto.
Qed.

Lemma percc_nodupA pc : In pc (comps P) -> NoDupA eqm (percc_of enum H pc).
Proof.
  intros Ipc. unfold percc_of, percc. apply NoDupA_flat_map.
  - exact eqm_equiv.
  - unfold cands. apply NoDup_filter. apply NoDup_index_from.
  - intros [i hc] I. cbn [fst snd]. apply NoDupA_map_pair.
    apply in_cands in I. destruct I as [I Hle]. apply (proj2 Hor hc pc); auto. eapply nth_error_In; eauto.
  - intros [i hc] [i' hc'] [j m] [j' m'] I I' Iy Iy' E. cbn [fst snd] in *.
    apply in_map_iff in Iy. destruct Iy as (m0 & [= <- <-] & Im).
    apply in_map_iff in Iy'. destruct Iy' as (m1 & [= <- <-] & Im').
    apply in_cands in I. apply in_cands in I'. destruct I as [I Hle], I' as [I' Hle'].
    unfold eqm in E. cbn [snd] in E.
    assert (Ihc : In hc (comps H)) by (eapply nth_error_In; eauto).
    assert (Ihc' : In hc' (comps H)) by (eapply nth_error_In; eauto).
    destruct (proj1 (proj2 Hor hc pc Ihc Ipc Hle) m0 Im) as (_ & B & _ & D & _).
    destruct (proj1 (proj2 Hor hc' pc Ihc' Ipc Hle') m1 Im') as (_ & _ & _ & D' & _).
    destruct (comps_class P HwfP pc Ipc) as (Hne & _).
    destruct pc as [|p0 pc']; [congruence|].
    assert (I0 : In p0 (map fst m0)) by (apply B; left; reflexivity).
    apply in_map_fst in I0. destruct I0 as (h0 & I0).
    assert (I1 : In (p0, h0) m1) by (eapply Permutation_in; eauto).
    assert (i = i') by (eapply (comps_disjoint H HwfH i i' hc hc' h0); eauto; [apply (D p0 h0 I0)|apply (D' p0 h0 I1)]).
    subst i'. congruence.
Qed.

Lemma bt_nodupA : forall rem used acc,
  NoDup rem -> (forall pc, In pc rem -> In pc (comps P)) ->
  NoDupA (@Permutation (N * N)) (bt_unl (map (percc_of enum H) rem) used acc).
Proof.
  induction rem as [|pc r IH]; intros used acc Hnd Hrem.
  - simpl. constructor; [intros I; inversion I|constructor].
  - cbn [map bt_unl]. inversion Hnd as [|? ? Hnotin Hnd']; subst.
    assert (Ipc : In pc (comps P)) by (apply Hrem; left; reflexivity).
    assert (Hr : forall pc', In pc' r -> In pc' (comps P)) by (intros pc' I; apply Hrem; right; exact I).
    apply NoDupA_flat_map.
    + apply Permutation_Equivalence.
    + eapply NoDupA_NoDup; [exact eqm_equiv|]. apply percc_nodupA. exact Ipc.
    + intros [j m] Ihm. cbn [fst snd]. destruct (memnat j used || clash m acc); [constructor|]. apply IH; auto.
    + intros [j m] [j' m'] y y' Ihm Ihm' Iy Iy' E. cbn [fst snd] in Iy, Iy'.
      destruct (memnat j used || clash m acc); [destruct Iy|].
      destruct (memnat j' used || clash m' acc); [destruct Iy'|].
      destruct (bt_unl_part enum H P HwfH HwfP Hor r _ _ y Hnd' Hr Iy) as (X & -> & (_ & BX & _) & _).
      destruct (bt_unl_part enum H P HwfH HwfP Hor r _ _ y' Hnd' Hr Iy') as (X' & -> & (_ & BX' & _) & _).
      destruct (percc_facts pc j m Ipc Ihm) as (hc & _ & _ & (A & B & _)).
      destruct (percc_facts pc j' m' Ipc Ihm') as (hc' & _ & _ & (A' & B' & _)).
      rewrite !app_assoc in E. apply Permutation_app_inv_r in E.
      (* the pairs of a result whose pattern node lies in [pc] are those of the embedding chosen for [pc] *)
      assert (Hsub : forall X0 m0 X1 m1 : mapping, (forall p, In p (map fst m0) <-> In p pc) ->
                (forall p, In p (map fst X1) <-> In p (concat r)) ->
                Permutation (X0 ++ m0) (X1 ++ m1) -> incl m0 m1).
      { intros X0 m0 X1 m1 B0 H1 Hp [p h] I.
        assert (I1 : In (p, h) (X1 ++ m1)) by (apply (Permutation_in _ Hp), in_or_app; right; exact I).
        apply in_app_or in I1. destruct I1 as [I1|I1]; [exfalso|exact I1].
        assert (Ic : In p (concat r)) by (apply H1, in_map_fst; eauto).
        apply in_concat in Ic. destruct Ic as (pc' & I' & Ip'). apply Hnotin.
        rewrite (comps_disjoint_val P HwfP pc pc' p); auto. apply B0, in_map_fst. eauto. }
      eapply (NoDupA_in_eq eqm); [apply percc_nodupA; exact Ipc|exact Ihm|exact Ihm'|].
      apply NoDup_Permutation; [eapply NoDup_map_inv; exact A|eapply NoDup_map_inv; exact A'|].
      intros x. split; [apply (Hsub X m X' m' B BX' E)|apply (Hsub X' m' X m B' BX (Permutation_sym E))].
Qed.

Theorem comp_unl_nodup strict :
  NoDupA (@Permutation (N * N)) (comp_unl enum strict H P).
Proof.
  unfold comp_unl.
  destruct (length (comps P) =? 0); [constructor; [intros I; inversion I|constructor]|].
  destruct (length (comps H) <? length (comps P)); [apply (proj1 Hor)|].
  destruct ((length (comps P) <? length (comps H)) && strict); [constructor|].
  destruct (Permutation_map_inv _ _ (sort_len_perm (map (percc_of enum H) (comps P)))) as (rem & Er & Hp).
  rewrite Er. apply bt_nodupA.
  - eapply Permutation_NoDup; [exact Hp|apply comps_NoDup; exact HwfP].
  - intros pc I. eapply Permutation_in; [apply Permutation_sym; exact Hp|exact I].
Qed.
End Sem.
