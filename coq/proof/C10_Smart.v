(** C10 — proofs: from the reaction string (after RDKit) to the rule and back: for an atom-balanced pair of
    molecule graphs the centre of ITSGraph(r, p) is in the domain of the GML round trip, so the rule written by
    smart_to_gml reads back as that centre. *)
From Coq Require Import String List NArith ZArith Bool Lia.
From SK Require Import lib.LGraph lib.StrJoin model.C10_Model proof.C10_Proof proof.C10_Views proof.C10_Build
  proof.C10_Copy proof.C10_GmlRead proof.C10_GmlWrite proof.C10_Centre proof.C10_Routes proof.C10_Routes2.
Import ListNotations.
Local Open Scope Z_scope.

Lemma NoDup_app_intro {A} (l1 l2 : list A) :
  NoDup l1 -> NoDup l2 -> (forall k, In k l1 -> In k l2 -> False) -> NoDup (l1 ++ l2).
Proof.
  induction 1 as [|x r Hx Hr IH]; intros H2 Hd; [exact H2|]. simpl. constructor.
  - rewrite in_app_iff. intros [Hin|Hin]; [contradiction|]. apply (Hd x); [left; reflexivity|exact Hin].
  - apply IH; [exact H2|]. intros k Hk1 Hk2. apply (Hd k); [right; exact Hk1|exact Hk2].
Qed.

Lemma pair_in_pmatch u v eo : pair_in u v eo = pmatch u v eo.
Proof. reflexivity. Qed.

(** ** what mol_ok / balanced give *)
Lemma mol_ok_parts g : mol_ok g = true ->
  NoDup (node_ids g) /\ uniq_pairs (gedges g) = true /\
  (forall p, In p (gnodes g) -> mol_node_ok (snd p) = true) /\ (forall e, In e (gedges g) -> mol_edge_ok g e = true).
Proof.
  unfold mol_ok. intros H. apply andb_true_iff in H. destruct H as [H H4]. apply andb_true_iff in H. destruct H as [H H3].
  apply andb_true_iff in H. destruct H as [H1 H2]. rewrite forallb_forall in H3, H4. split; [apply nodupb_NoDup, H1|auto].
Qed.
Lemma mol_ok_gwf g : mol_ok g = true -> gwf g.
Proof.
  intros H. destruct (mol_ok_parts g H) as (H1 & H2 & _ & H4). split; [exact H1|exact H2|].
  intros a b x Hin. specialize (H4 _ Hin). unfold mol_edge_ok in H4.
  rewrite !andb_true_iff in H4. tauto.
Qed.
Lemma mol_ok_node g n a : mol_ok g = true -> label g n = Some a ->
  exists e q, a_el a = Some e /\ a_ch a = Some q /\ elem_str e.
Proof.
  intros Hok L. destruct (mol_ok_parts g Hok) as (_ & _ & H3 & _). apply assoc_in in L.
  specialize (H3 _ L). simpl in H3. unfold mol_node_ok in H3.
  destruct (a_el a) as [e|]; [|discriminate]. destruct (a_ch a) as [q|]; [|discriminate]. exists e, q. repeat split.
  - unfold elem_ok in H3. destruct e; discriminate.
  - unfold elem_ok in H3. destruct e; [discriminate|]. apply Forall_forall. rewrite forallb_forall in H3. exact H3.
Qed.
Lemma mol_ok_edge g u v x : mol_ok g = true -> adj g u v = Some x ->
  exists o, e_ord x = Some (OS o) /\ (o = 2 \/ o = 3 \/ o = 4 \/ o = 6).
Proof.
  intros Hok A. unfold adj in A. apply find_some_in in A. destruct A as (a0 & b0 & Hin & _).
  destruct (mol_ok_parts g Hok) as (_ & _ & _ & H4). specialize (H4 _ Hin). unfold mol_edge_ok in H4. rewrite !andb_true_iff in H4. destruct H4 as [_ H4].
  destruct (e_ord x) as [[o|? ?]|]; try discriminate. exists o. split; [reflexivity|].
  rewrite !orb_true_iff, !Z.eqb_eq in H4. tauto.
Qed.
Lemma scal_order_cases g u v : mol_ok g = true ->
  (adj g u v = None /\ scal_order g u v = 0) \/
  (adj g u v <> None /\ (scal_order g u v = 2 \/ scal_order g u v = 3 \/ scal_order g u v = 4 \/ scal_order g u v = 6)).
Proof.
  intros Hok. unfold scal_order. destruct (adj g u v) as [x|] eqn:A; [right|left; auto].
  destruct (mol_ok_edge g u v x Hok A) as (o & -> & Ho). split; [discriminate|exact Ho].
Qed.

Lemma mol_pair_orders G H u v : mol_ok G = true -> mol_ok H = true -> has_edge G u v || has_edge H u v = true ->
  ord_ok (scal_order G u v) = true /\ ord_ok (scal_order H u v) = true /\ (scal_order G u v <> 0 \/ scal_order H u v <> 0).
Proof.
  intros HG HH E.
  assert (forall g, mol_ok g = true ->
            ord_ok (scal_order g u v) = true /\ (has_edge g u v = true -> scal_order g u v <> 0)) as Hs.
  { intros g Hg. unfold has_edge. destruct (scal_order_cases g u v Hg) as [[-> ->]|[_ S]]; [split; [reflexivity|discriminate]|].
    split; [|intros _]; destruct S as [->|[->|[->| ->]]]; (reflexivity || discriminate). }
  destruct (Hs G HG) as [O1 N1]. destruct (Hs H HH) as [O2 N2]. split; [exact O1|split; [exact O2|]].
  apply orb_true_iff in E. destruct E as [E|E]; [left; apply N1, E|right; apply N2, E].
Qed.

Section Smart.
Variables G H : gr.
Hypothesis HG : mol_ok G = true.
Hypothesis HH : mol_ok H = true.
Hypothesis Hbal : balanced G H = true.
Variable eo : list (N * N).
Hypothesis Heo : forall u v, pair_in u v eo = has_edge G u v || has_edge H u v.
Let WG := mol_ok_gwf G HG.
Let WH := mol_ok_gwf H HH.
Let I := its_construct G H eo.

Lemma bal_GH n a : label G n = Some a -> exists b, label H n = Some b /\ dflt (a_el a) s_star = dflt (a_el b) s_star.
Proof.
  intros L. unfold balanced in Hbal. apply andb_true_iff in Hbal. destruct Hbal as [B _]. rewrite forallb_forall in B.
  apply assoc_in in L. specialize (B _ L). simpl in B. destruct (label H n) as [b|]; [|discriminate].
  exists b. split; [reflexivity|]. apply str_eqb_eq. exact B.
Qed.
Lemma bal_HG n : has_node H n = true -> has_node G n = true.
Proof.
  intros Hn. unfold balanced in Hbal. apply andb_true_iff in Hbal. destruct Hbal as [_ B]. rewrite forallb_forall in B.
  apply has_node_label in Hn. destruct Hn as [b Lb]. apply assoc_in in Lb. apply (B _ Lb).
Qed.

(** nodes of the ITS = nodes of G, each with typesGH from both sides *)
Lemma its_nodes_label n : assoc n (its_nodes G H) = match label G n with Some a => Some (dflt (assoc n (its_nodes G H)) a) | None => None end.
Proof.
  rewrite its_nodes_assoc. cbv zeta. destruct (label G n) as [a|] eqn:La.
  - destruct (bal_GH n a La) as (b & Lb & _). destruct (_ <=? _)%nat; rewrite ?La, ?Lb; reflexivity.
  - assert (label H n = None) as Lb.
    { apply has_node_false. apply not_true_is_false. intros Hn. apply bal_HG, has_node_label in Hn. destruct Hn; congruence. }
    destruct (_ <=? _)%nat; rewrite ?La, ?Lb; reflexivity.
Qed.

Lemma I_fold : I = fold_left (estep (its_d G H)) eo (its_g0 G H).
Proof. apply its_construct_fold. Qed.

Lemma g0_NoDup : NoDup (map fst (its_nodes G H)).
Proof.
  unfold its_nodes. cbv zeta. set (base := if (_ <=? _)%nat then G else H). set (other := if (_ <=? _)%nat then H else G).
  assert (gwf base /\ gwf other) as [Wb Wo] by (unfold base, other; destruct (_ <=? _)%nat; auto).
  rewrite map_app. apply NoDup_app_intro.
  - apply (gwf_nd _ Wb).
  - pose proof (gwf_nd _ Wo) as Hnd. unfold node_ids in Hnd. induction (gnodes other) as [|[k a] r IH]; [constructor|].
    simpl in *. inversion Hnd as [|? ? Hnot Hnd']; subst. destruct (has_node base k); simpl; [apply IH; exact Hnd'|].
    constructor; [|apply IH; exact Hnd']. intros Hin. apply Hnot. apply in_map_iff in Hin. destruct Hin as (p & E & Hp).
    apply filter_In in Hp. apply in_map_iff. exists p. tauto.
  - intros k Hk1 Hk2. apply in_map_iff in Hk2. destruct Hk2 as ([k' a] & E & Hp). simpl in E. subst k'.
    apply filter_In in Hp. destruct Hp as [_ Hp]. simpl in Hp. apply negb_true_iff in Hp.
    fold (node_ids base) in Hk1. apply has_node_in in Hk1. congruence.
Qed.

Lemma g0_gwf : gwf (its_g0 G H).
Proof.
  split.
  - unfold node_ids, its_g0. simpl. rewrite map_map. simpl. exact g0_NoDup.
  - reflexivity.
  - intros a b x [].
Qed.
Lemma I_gwf : gwf I.
Proof. rewrite I_fold. apply fold_estep_gwf, g0_gwf. Qed.

Lemma edge_ends_G u v : has_edge G u v || has_edge H u v = true -> has_node G u = true /\ has_node G v = true.
Proof.
  intros E. apply orb_true_iff in E. destruct E as [E|E]; unfold has_edge in E.
  - destruct (adj G u v) as [x|] eqn:A; [|discriminate]. apply (adj_ends G u v x WG A).
  - destruct (adj H u v) as [x|] eqn:A; [|discriminate]. destruct (adj_ends H u v x WH A). split; apply bal_HG; assumption.
Qed.
Lemma g0_has n : has_node G n = true -> has_node (its_g0 G H) n = true.
Proof.
  intros Hn. apply has_node_label in Hn. destruct Hn as [a La]. unfold has_node, label, its_g0. simpl.
  rewrite (assoc_map_val (its_node G H)), its_nodes_label, La. reflexivity.
Qed.
Lemma I_gnodes : gnodes I = gnodes (its_g0 G H).
Proof.
  rewrite I_fold. apply fold_estep_node_ids. intros [u v] He.
  assert (pair_in u v eo = true) as PI.
  { unfold pair_in. apply existsb_exists. exists (u, v). split; [exact He|]. simpl. rewrite !N.eqb_refl. reflexivity. }
  rewrite Heo in PI. destruct (edge_ends_G u v PI). simpl. split; apply g0_has; assumption.
Qed.
Lemma I_label n : label I n =
  match label G n with Some a => option_map (its_node G H n) (assoc n (its_nodes G H)) | None => None end.
Proof.
  unfold label at 1. rewrite I_gnodes. unfold its_g0. simpl. rewrite (assoc_map_val (its_node G H)), its_nodes_label.
  destruct (label G n); reflexivity.
Qed.
Lemma I_has n : has_node I n = has_node G n.
Proof.
  unfold has_node. rewrite I_label. destruct (label G n) as [a|] eqn:La; [|reflexivity]. rewrite its_nodes_label, La. reflexivity.
Qed.
Lemma I_adj u v : adj I u v = if has_edge G u v || has_edge H u v then its_d G H u v else None.
Proof.
  rewrite I_fold, (fold_estep_adj (its_d G H) (its_d_sym G H)); [|left; reflexivity].
  rewrite <- pair_in_pmatch, Heo. reflexivity.
Qed.
Lemma I_is_ok : is_ok I.
Proof.
  split; [exact I_gwf|]. intros n a L. rewrite I_label in L. destruct (label G n); [|discriminate].
  destruct (assoc n (its_nodes G H)) as [b|]; [|discriminate]. simpl in L. injection L as <-.
  unfold its_node. destruct (tg_of G n) as [[[e ar] h] c]. simpl. discriminate.
Qed.

Lemma tg_of_G n a : label G n = Some a -> exists e q ar h, tg_of G n = (e, ar, h, q) /\ a_el a = Some e /\ elem_str e.
Proof.
  intros L. destruct (mol_ok_node G n a HG L) as (e & q & E1 & E2 & E3). unfold tg_of. rewrite L, E1, E2. simpl.
  exists e, q, (dflt (a_ar a) false), (dflt (a_hc a) 0). auto.
Qed.

Theorem centre_IOK : IOK (get_rc I).
Proof.
  pose proof I_is_ok as HI. split; [apply get_rc_gwf; exact HI|split].
  - intros n b L. rewrite (get_rc_label I n HI) in L. destruct (touched I n) eqn:T; [|discriminate]. injection L as <-.
    unfold rca. rewrite I_label. destruct (label G n) as [a|] eqn:La.
    + destruct (bal_GH n a La) as (a' & Lb & Eel).
      assert (exists b0, assoc n (its_nodes G H) = Some b0) as [b0 Eb] by (rewrite its_nodes_label, La; eauto).
      rewrite Eb. simpl.
      destruct (mol_ok_node G n a HG La) as (e & q & E1 & E2 & E3). destruct (mol_ok_node H n a' HH Lb) as (e' & q' & E1' & E2' & _).
      rewrite E1, E1' in Eel. simpl in Eel. subst e'.
      unfold its_node, tg_of. rewrite La, Lb, E1, E2, E1', E2'. simpl.
      exists e, (dflt (a_ar a) false), (dflt (a_hc a) 0), q, (dflt (a_ar a') false), (dflt (a_hc a') 0), q'. auto.
    + (* a touched node is a node of G *) simpl.
      exfalso. apply (touched_spec I n I_gwf) in T. destruct T as (w & x & A & _). rewrite I_adj in A.
      destruct (has_edge G n w || has_edge H n w) eqn:E; [|discriminate]. destruct (edge_ends_G n w E) as [Hn _].
      apply has_node_label in Hn. destruct Hn. congruence.
  - intros u v x A. destruct (rc_adj_some I HI u v x A) as [AI _]. rewrite I_adj in AI.
    destruct (has_edge G u v || has_edge H u v) eqn:E; [|discriminate]. unfold its_d in AI. injection AI as <-.
    exists (scal_order G u v), (scal_order H u v).
    destruct (mol_pair_orders G H u v HG HH E) as (O1 & O2 & Hne).
    destruct (adj_ends _ u v _ (get_rc_gwf I HI) A) as [Hu Hv]. repeat split; auto.
Qed.
End Smart.

Theorem smart_roundtrip (r p : gr) (eo : list (N * N)) :
  mol_ok r = true -> mol_ok p = true -> balanced r p = true ->
  (forall u v, pair_in u v eo = has_edge r u v || has_edge p u v) ->
  let c := get_rc (its_construct r p eo) in
  let I' := gml_to_its (smart_to_gml r p eo true false false) in
  (forall n, has_node I' n = has_node c n) /\
  (forall n a, label c n = Some a ->
     label I' n = Some (gml_node n (tg_el (tG_of a)) (tg_ch (tG_of a)) (tg_ch (tH_of a)))) /\
  (forall u v, adj I' u v = adj c u v).
Proof.
  intros Hr Hp Hb He c I'. unfold I'. rewrite two_routes_string_its, its_core_is_centre_export.
  apply gml_roundtrip_iok. apply (centre_IOK r p Hr Hp Hb eo He).
Qed.

(** the boolean form of the premise on [eo] *)
Lemma eo_covers_spec G H eo : eo_covers G H eo = true -> forall u v, pair_in u v eo = has_edge G u v || has_edge H u v.
Proof.
  unfold eo_covers. rewrite !andb_true_iff, !forallb_forall. intros [[H1 H2] H3] u v. apply eq_true_iff_eq. split.
  - unfold pair_in. rewrite existsb_exists. intros ([a b] & Hin & P). specialize (H1 _ Hin). simpl in *.
    fold (pair_eqb a b u v) in P. unfold has_edge in *. rewrite <- (adj_pair G _ _ _ _ P), <- (adj_pair H _ _ _ _ P). exact H1.
  - intros E. apply orb_true_iff in E. unfold has_edge in E. destruct E as [E|E].
    + destruct (adj G u v) as [x|] eqn:A; [|discriminate]. apply find_some_in in A. destruct A as (a & b & Hin & P).
      specialize (H2 _ Hin). simpl in H2. rewrite pair_in_pmatch in *. unfold pmatch in *. rewrite existsb_exists in *.
      destruct H2 as ([a' b'] & Hin' & P'). exists (a', b'). split; [exact Hin'|]. simpl in *.
      rewrite (pair_eqb_trans _ _ _ _ u v P'). exact P.
    + destruct (adj H u v) as [x|] eqn:A; [|discriminate]. apply find_some_in in A. destruct A as (a & b & Hin & P).
      specialize (H3 _ Hin). simpl in H3. rewrite pair_in_pmatch in *. unfold pmatch in *. rewrite existsb_exists in *.
      destruct H3 as ([a' b'] & Hin' & P'). exists (a', b'). split; [exact Hin'|]. simpl in *.
      rewrite (pair_eqb_trans _ _ _ _ u v P'). exact P.
Qed.

(** non-vacuity: C-O + N -> C-N + O with charge changes on O and N *)
Local Open Scope string_scope.
Definition mkq (el : string) (hc q : Z) : natt := NA (Some (s2l el)) (Some false) (Some hc) (Some q) (Some 0) None.
Definition ex_r : gr := LG [(1%N, mkq "C" 3 0); (2%N, mkq "O" 1 0); (3%N, mkq "N" 2 0); (4%N, mkq "C" 3 0)]
                           [(1%N, 2%N, EA (Some (OS 2)) None); (3%N, 4%N, EA (Some (OS 2)) None)].
Definition ex_p : gr := LG [(1%N, mkq "C" 3 0); (2%N, mkq "O" 1 (-1)); (3%N, mkq "N" 2 1); (4%N, mkq "C" 3 0)]
                           [(1%N, 3%N, EA (Some (OS 2)) None); (4%N, 3%N, EA (Some (OS 2)) None)].
Example smart_roundtrip_ex :
  mol_ok ex_r = true /\ mol_ok ex_p = true /\ balanced ex_r ex_p = true /\ eo_covers ex_r ex_p (union_pairs ex_r ex_p) = true /\
  node_ids (get_rc (its_construct ex_r ex_p (union_pairs ex_r ex_p))) = [1; 2; 3]%N /\
  adj (gml_to_its (smart_to_gml ex_r ex_p (union_pairs ex_r ex_p) true false false)) 1%N 3%N = Some (EA (Some (OP 0 2)) (Some (-2))).
Proof. vm_compute. repeat split. Qed.

(** non-vacuity of the literal route equality (proof/C10_Routes.v) and of the reindexed centre routes on the same reaction *)
Example two_routes_string_its_ex :
  smart_to_gml ex_r ex_p (union_pairs ex_r ex_p) true true false
  = its_to_gml (its_construct ex_r ex_p (union_pairs ex_r ex_p)) true true false /\
  List.length (flat_map snd (smart_to_gml ex_r ex_p (union_pairs ex_r ex_p) true true false)) = 7%nat.
Proof. split; [apply two_routes_string_its|vm_compute; reflexivity]. Qed.
Definition ex_I : gr := its_construct ex_r ex_p (union_pairs ex_r ex_p).
Example two_routes_centre_reindex_ex :
  gwfb ex_I = true /\ all_tgh ex_I = true /\ its_ok (get_rc ex_I) = true /\
  map (mapget (enum_from 1%N (node_ids (get_rc ex_I)))) (node_ids (get_rc ex_I)) = [1; 2; 3]%N /\
  has_node ex_I 4 = true /\ has_node (gml_to_its (its_to_gml ex_I true true false)) 4 = false.
Proof. vm_compute. repeat split. Qed.
