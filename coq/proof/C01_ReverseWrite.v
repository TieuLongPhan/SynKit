(** C01 — "every reversal" carried through to the writer: for a balanced reaction whose atoms keep their element, what
    its_to_rsmi hands to GraphToMol for the reversed reaction is, side for side exchanged, what it hands over for the
    reaction itself (same preserve set, same folding) *)
From Coq Require Import List NArith ZArith Bool Lia Arith.
From SK Require Import lib.LGraph lib.C01_GraphLemmas model.C01_Model model.C02_Model model.C01_String model.C01_Rewrite model.C01_Prem
  proof.C01_Proof proof.C02_Proof proof.C01_StringProof proof.C01_StringHyd proof.C01_StringHydExt proof.C01_StringPipe
  proof.C01_RenumWrite proof.C01_RewriteProof proof.C01_WriteExt proof.C01_PremProof.
Import ListNotations.
Local Open Scope Z_scope.

Section Rev.
Variables G H : mgraph.
Hypothesis WG : wf G.
Hypothesis WH : wf H.
Hypothesis S : same_nodes G H.
Hypothesis AG : amap_id G.
Hypothesis AH : amap_id H.
(** no atom changes its element *)
Hypothesis EL : forall n a b, label G n = Some a -> label H n = Some b -> g_el a = g_el b.

Let I := its_construct G H.
Let I' := its_construct H G.

Lemma WI : wf I. Proof. apply its_wf; assumption. Qed.
Lemma WI' : wf I'. Proof. apply its_wf; assumption. Qed.

Lemma rev_label n : label I' n = option_map swap_inode (label I n).
Proof. apply (reverse_its G H WG WH S AG AH). Qed.
Lemma rev_adj u v : adj I' u v = option_map swap_iedge (adj I u v).
Proof. apply (reverse_its G H WG WH S AG AH). Qed.

Lemma el_swap n a : label I n = Some a -> i_el (swap_inode a) = i_el a.
Proof.
  intros L. destruct (its_label_types G H n a L) as (Eg & Eh & Ee & _). unfold swap_inode. cbn [i_el]. rewrite Ee, Eh.
  unfold side_tuple.
  assert (In n (node_ids I)) as In_ by (eapply label_some_node; eauto).
  apply its_node_ids in In_.
  assert (In n (node_ids G) /\ In n (node_ids H)) as [IG IH] by (destruct In_ as [K|K]; split; try exact K; apply S; exact K).
  apply node_label_some in IG, IH. destruct IG as (a1 & L1), IH as (b1 & L2). rewrite L1, L2. cbn. symmetry. apply (EL n a1 b1 L1 L2).
Qed.

Lemma rev_is_h n : is_h I' n = is_h I n.
Proof.
  unfold is_h. rewrite rev_label. destruct (label I n) as [a|] eqn:L; [|reflexivity]. cbn [option_map]. rewrite (el_swap n a L). reflexivity.
Qed.

Lemma rev_node_ids n : In n (node_ids I') <-> In n (node_ids I).
Proof.
  split; intros K; apply node_label_some in K; destruct K as (a & L).
  - rewrite rev_label in L. destruct (label I n) as [b|] eqn:Lb; [eapply label_some_node; eauto|discriminate].
  - assert (label I' n = Some (swap_inode a)) as L' by (rewrite rev_label, L; reflexivity). eapply label_some_node; eauto.
Qed.

Lemma changed_swap x : changed (swap_iedge x) = changed x.
Proof. unfold changed, swap_iedge. cbn. destruct (Z.eqb_spec (e_std x) 0), (Z.eqb_spec (- e_std x) 0); try reflexivity; lia. Qed.

Lemma rev_rc_keys k : In k (node_ids (get_rc I')) <-> In k (node_ids (get_rc I)).
Proof.
  rewrite (rc_keys_adj I' k WI'), (rc_keys_adj I k WI), rev_node_ids. unfold is_hh.
  split; intros (Ik & v & x & Ad & Hs); (split; [exact Ik|]).
  - rewrite rev_adj in Ad. destruct (adj I k v) as [y|] eqn:Ay; [|discriminate]. cbn [option_map] in Ad. inversion Ad; subst x.
    exists v, y. split; [exact Ay|]. rewrite changed_swap, !rev_is_h in Hs. exact Hs.
  - exists v, (swap_iedge x). split; [rewrite rev_adj, Ad; reflexivity|]. rewrite changed_swap, !rev_is_h. exact Hs.
Qed.

Lemma rev_hlist z : In z (hlist I') <-> In z (hlist I).
Proof.
  rewrite (hlist_label I' z WI'), (hlist_label I z WI). split.
  - intros (n & b & L & Hb & Ez). pose proof (label_some_node L) as Ik. apply rev_rc_keys in Ik.
    apply rc_label_sound in L. destruct L as (a' & La' & ->). rewrite rev_label in La'.
    destruct (label I n) as [a|] eqn:La; [|discriminate]. inversion La'; subst a'.
    exists n, (rc_attr a). split; [apply rc_label_keys; assumption|]. cbn [rc_attr i_el i_amap] in *. rewrite (el_swap n a La) in Hb. auto.
  - intros (n & b & L & Hb & Ez). pose proof (label_some_node L) as Ik. apply rev_rc_keys in Ik.
    apply rc_label_sound in L. destruct L as (a & La & ->).
    exists n, (rc_attr (swap_inode a)). split; [apply rc_label_keys; [exact Ik|rewrite rev_label, La; reflexivity]|].
    cbn [rc_attr i_el i_amap] in *. rewrite (el_swap n a La). auto.
Qed.

Theorem reverse_written :
  (forall z, In z (hlist I') <-> In z (hlist I)) /\
  geq (fst (its_to_graphs I')) (snd (its_to_graphs I)) /\ geq (snd (its_to_graphs I')) (fst (its_to_graphs I)).
Proof.
  split; [exact rev_hlist|].
  destruct (reverse_its G H WG WH S AG AH) as (_ & _ & G1 & G2). fold I I' in G1, G2.
  unfold its_to_graphs. cbn [fst snd].
  split; apply smi_graph_ext; try assumption; try (apply dec_wf; first [exact WI|exact WI']); exact rev_hlist.
Qed.
End Rev.

Example C01_reverse_written_nonvacuous :
  let G := graph_of C01_RenumWrite.ex_hr in let H := graph_of C01_RenumWrite.ex_hp in
  same_nodes G H /\ amap_id G /\ amap_id H /\ (forall n a b, label G n = Some a -> label H n = Some b -> g_el a = g_el b) /\
  hlist (its_construct H G) = [3; 4] /\ hlist (its_construct G H) = [3; 4].
Proof.
  cbv zeta. destruct (reaction_okb_sound C01_RenumWrite.ex_hr C01_RenumWrite.ex_hp) as (O1 & O2 & _ & _ & S & _); [vm_compute; reflexivity|].
  split; [exact S|]. split; [apply graph_of_amap_id; exact O1|]. split; [apply graph_of_amap_id; exact O2|].
  split; [|split; vm_compute; reflexivity].
  assert (forallb (fun p => match label (graph_of C01_RenumWrite.ex_hp) (fst p) with
                            | Some b => N.eqb (g_el (snd p)) (g_el b) | None => true end)
                  (gnodes (graph_of C01_RenumWrite.ex_hr)) = true) as F by (vm_compute; reflexivity).
  rewrite forallb_forall in F. intros n a b La Lb. apply assoc_in, F in La. cbn [fst snd] in La. rewrite Lb in La.
  apply N.eqb_eq. exact La.
Qed.
