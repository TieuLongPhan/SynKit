(** C04 — when does _explicit_h NOT raise?  A criterion on the ITS: if its hydrogen changes decompose into transfers each of
    which stays inside one h_pairs group and gives away no more than it takes, every component of the pairing graph is
    balanced, hence (C03_explicitH_crash_iff) _explicit_h returns.  Generic facts about [components] (C03_Model): they are
    duplicate-free, pairwise disjoint and every group lies inside one of them (C03 proves the converse direction only). *)
From Coq Require Import List NArith ZArith Bool Arith Lia.
From SK Require Import lib.Tok lib.LGraph model.C03_Model model.C03_Order proof.C03_Ord proof.C03_Proof proof.C03_Spec proof.C03_ExplicitH proof.C03_Wiring proof.C03_WiringCount proof.C03_ExplicitTotal.
Import ListNotations.
Local Open Scope Z_scope.

(** * components *)
Definition disj (a b : list N) : Prop := forall x, In x a -> In x b -> False.
Inductive Disj : list (list N) -> Prop :=
| Disj_nil : Disj []
| Disj_cons c r : (forall c', In c' r -> disj c c') -> Disj r -> Disj (c :: r).

Lemma nodup_app' {X} (l1 l2 : list X) : NoDup l1 -> NoDup l2 -> (forall x, In x l1 -> ~ In x l2) -> NoDup (l1 ++ l2).
Proof.
  induction l1 as [|y r IH]; simpl; intros H1 H2 Hd; [exact H2|]. inversion H1; subst. constructor.
  - intros I. apply in_app_or in I. destruct I as [I|I]; [contradiction|]. exact (Hd y (or_introl eq_refl) I).
  - apply IH; auto.
Qed.
Lemma union_nodup a b : NoDup a -> NoDup b -> NoDup (union a b).
Proof.
  intros Ha Hb. unfold union. apply nodup_app'; [exact Ha|apply NoDup_filter; exact Hb|].
  intros x Ia I. apply filter_In in I. destruct I as [_ K]. apply negb_true_iff in K.
  assert (mem x a = true) by (apply mem_spec; exact Ia). congruence.
Qed.
Lemma fold_union_nodup hs : forall ns, NoDup ns -> (forall c, In c hs -> NoDup c) -> NoDup (fold_left union hs ns).
Proof.
  induction hs as [|h r IH]; intros ns Hn Hh; cbn [fold_left]; [exact Hn|].
  apply IH; [apply union_nodup; [exact Hn|apply Hh; left; reflexivity]|intros c I; apply Hh; right; exact I].
Qed.

Lemma Disj_in cs : Disj cs -> forall c1 c2 x, In c1 cs -> In c2 cs -> In x c1 -> In x c2 -> c1 = c2 \/ False.
Proof.
  induction 1 as [|c r Hc Hr IH]; intros c1 c2 x I1 I2 X1 X2; [destruct I1|].
  destruct I1 as [<-|I1], I2 as [<-|I2].
  - left. reflexivity.
  - right. exact (Hc c2 I2 x X1 X2).
  - right. exact (Hc c1 I1 x X2 X1).
  - exact (IH c1 c2 x I1 I2 X1 X2).
Qed.
Lemma Disj_filter (f : list N -> bool) cs : Disj cs -> Disj (filter f cs).
Proof.
  induction 1 as [|c r Hc Hr IH]; simpl; [constructor|]. destruct (f c); [|exact IH].
  constructor; [|exact IH]. intros c' I. apply filter_In in I. destruct I as [I _]. exact (Hc c' I).
Qed.

(** one step: the new group is absorbed into one component; everything that was inside a component stays inside one *)
Lemma add_group_inv cs ns : Disj cs -> (forall c, In c cs -> NoDup c) -> NoDup ns ->
  Disj (add_group cs ns) /\ (forall c, In c (add_group cs ns) -> NoDup c) /\
  (exists c, In c (add_group cs ns) /\ incl ns c) /\
  (forall c0, In c0 cs -> exists c, In c (add_group cs ns) /\ incl c0 c).
Proof.
  intros HD HN Hns. unfold add_group.
  set (hit := filter (inter ns) cs). set (miss := filter (fun c => negb (inter ns c)) cs). set (new := fold_left union hit ns).
  assert (Hnew : forall x, In x new <-> In x ns \/ exists c, In c hit /\ In x c) by (intros x; apply in_fold_union).
  split; [|split; [|split]].
  - constructor; [|apply Disj_filter; exact HD].
    intros c' Ic' x Xn Xc. apply filter_In in Ic'. destruct Ic' as [Ic' Hm]. apply negb_true_iff in Hm.
    apply Hnew in Xn. destruct Xn as [Xn|(c & Ich & Xc0)].
    + assert (inter ns c' = true) by (apply inter_spec; exists x; auto). congruence.
    + apply filter_In in Ich. destruct Ich as [Ich Hh].
      destruct (Disj_in cs HD c c' x Ich Ic' Xc0 Xc) as [E|[]]. subst c'. congruence.
  - intros c [<-|I].
    + apply fold_union_nodup; [exact Hns|]. intros c I. apply filter_In in I. apply HN. exact (proj1 I).
    + apply filter_In in I. apply HN. exact (proj1 I).
  - exists new. split; [left; reflexivity|]. intros x I. apply Hnew. left. exact I.
  - intros c0 I0. destruct (inter ns c0) eqn:E.
    + exists new. split; [left; reflexivity|]. intros x I. apply Hnew. right. exists c0. split; [apply filter_In; auto|exact I].
    + exists c0. split; [right; apply filter_In; split; [exact I0|rewrite E; reflexivity]|intros x I; exact I].
Qed.

Theorem components_inv (pt : list (N * list N)) : (forall g, In g pt -> NoDup (snd g)) ->
  Disj (components pt) /\ (forall c, In c (components pt) -> NoDup c) /\
  (forall g, In g pt -> exists c, In c (components pt) /\ incl (snd g) c).
Proof.
  intros Hpt. unfold components.
  assert (H : forall (l : list (N * list N)) cs, (forall g, In g l -> NoDup (snd g)) -> Disj cs -> (forall c, In c cs -> NoDup c) ->
            let cs' := fold_left (fun cs g => add_group cs (snd g)) l cs in
            Disj cs' /\ (forall c, In c cs' -> NoDup c) /\
            (forall g, In g l -> exists c, In c cs' /\ incl (snd g) c) /\
            (forall c0, In c0 cs -> exists c, In c cs' /\ incl c0 c)).
  { induction l as [|g r IH]; intros cs Hl HD HN; cbn [fold_left].
    - split; [exact HD|]. split; [exact HN|]. split; [intros g []|]. intros c0 I. exists c0. split; [exact I|intros x Ix; exact Ix].
    - destruct (add_group_inv cs (snd g) HD HN (Hl g (or_introl eq_refl))) as (D1 & N1 & (cg & Icg & Sg) & K1).
      destruct (IH (add_group cs (snd g)) (fun g' I => Hl g' (or_intror I)) D1 N1) as (D2 & N2 & G2 & K2).
      split; [exact D2|]. split; [exact N2|]. split.
      + intros g' [<-|I]; [|exact (G2 g' I)]. destruct (K2 cg Icg) as (c & Ic & Sc). exists c. split; [exact Ic|].
        intros x Ix. apply Sc. apply Sg. exact Ix.
      + intros c0 I0. destruct (K1 c0 I0) as (c1 & I1 & S1). destruct (K2 c1 I1) as (c & Ic & Sc). exists c. split; [exact Ic|].
        intros x Ix. apply Sc. apply S1. exact Ix. }
  destruct (H pt [] Hpt Disj_nil (fun c (I : In c []) => match I with end)) as (D & Nn & G & _). auto.
Qed.

(** * pair_to_nodes: distinct keys, duplicate-free groups, and EVERY atom that carries a pair id is listed under it *)
Definition pt_wf (pt : list (N * list N)) : Prop := NoDup (map fst pt) /\ forall q ns, In (q, ns) pt -> NoDup ns.

Lemma pt_add_keys pt pid n : forall q, In q (map fst (pt_add pt pid n)) <-> In q (map fst pt) \/ q = pid.
Proof.
  induction pt as [|[q0 ns0] r IH]; intros q; simpl.
  - split.
    + intros [E|F]; [right; symmetry; exact E|destruct F].
    + intros [F|E]; [destruct F|left; symmetry; exact E].
  - destruct (N.eqb_spec q0 pid) as [E0|Ne]; simpl.
    + subst q0. split; [intros [E|I]; [left; left; exact E|left; right; exact I]|intros [[E|I]|E]; [left; exact E|right; exact I|left; symmetry; exact E]].
    + rewrite IH. split; [intros [E|[I|E]]; [left; left; exact E|left; right; exact I|right; exact E]
                          |intros [[E|I]|E]; [left; exact E|right; left; exact I|right; right; exact E]].
Qed.
Lemma pt_add_groups pt pid n : (forall q ns, In (q, ns) pt -> NoDup ns) -> forall q ns, In (q, ns) (pt_add pt pid n) -> NoDup ns.
Proof.
  induction pt as [|[q0 ns0] r IH]; intros Hn q ns I; simpl in I.
  - destruct I as [I|[]]. inversion I; subst. repeat constructor. intros [].
  - destruct (N.eqb_spec q0 pid) as [E0|Ne].
    + destruct I as [I|I].
      * inversion I; subst. destruct (mem n ns0) eqn:Em; [exact (Hn _ ns0 (or_introl eq_refl))|].
        apply nodup_snoc; [exact (Hn _ ns0 (or_introl eq_refl))|]. intros J. apply mem_spec in J. congruence.
      * exact (Hn q ns (or_intror I)).
    + destruct I as [I|I].
      * inversion I; subst. exact (Hn q ns (or_introl eq_refl)).
      * exact (IH (fun q' ns' I' => Hn q' ns' (or_intror I')) q ns I).
Qed.
Lemma pt_add_wf pt pid n : pt_wf pt -> pt_wf (pt_add pt pid n).
Proof.
  intros [Hk Hn]. split; [|exact (pt_add_groups pt pid n Hn)].
  clear Hn. induction pt as [|[q0 ns0] r IH]; simpl; [repeat constructor; intros []|].
  inversion Hk as [|? ? K1 K2]; subst. destruct (N.eqb_spec q0 pid) as [E0|Ne]; simpl; [constructor; assumption|].
  constructor; [|apply IH; exact K2]. intros I. apply pt_add_keys in I. destruct I as [I|I]; [contradiction|congruence].
Qed.
(** what was listed stays listed, and the new atom is listed under the new id *)
Lemma pt_add_mono pt pid n : forall q ns a, In (q, ns) pt -> In a ns -> exists ns', In (q, ns') (pt_add pt pid n) /\ In a ns'.
Proof.
  induction pt as [|[q0 ns0] r IH]; intros q ns a I Ia; [destruct I|]. simpl.
  destruct (N.eqb_spec q0 pid) as [E0|Ne].
  - destruct I as [I|I].
    + inversion I; subst. eexists. split; [left; reflexivity|]. destruct (mem n ns); [exact Ia|apply in_or_app; left; exact Ia].
    + exists ns. split; [right; exact I|exact Ia].
  - destruct I as [I|I].
    + inversion I; subst. exists ns. split; [left; reflexivity|exact Ia].
    + destruct (IH q ns a I Ia) as (ns' & I' & Ia'). exists ns'. split; [right; exact I'|exact Ia'].
Qed.
Lemma pt_add_new pt pid n : exists ns, In (pid, ns) (pt_add pt pid n) /\ In n ns.
Proof.
  induction pt as [|[q0 ns0] r IH]; simpl.
  - exists [n]. split; left; reflexivity.
  - destruct (N.eqb_spec q0 pid) as [E0|Ne].
    + subst q0. eexists. split; [left; reflexivity|]. destruct (mem n ns0) eqn:Em; [apply mem_spec; exact Em|apply in_or_app; right; left; reflexivity].
    + destruct IH as (ns & I & In_). exists ns. split; [right; exact I|exact In_].
Qed.

Definition pt_lists (pt : list (N * list N)) (pid k : N) : Prop := exists ns, In (pid, ns) pt /\ In k ns.

Lemma pair_to_nodes_complete (T : its) :
  pt_wf (pair_to_nodes T) /\
  forall k A pid, In (k, A) (gnodes T) -> In pid (hp_of A) -> pt_lists (pair_to_nodes T) pid k.
Proof.
  unfold pair_to_nodes.
  assert (Inner : forall k pids pt, pt_wf pt ->
            let pt' := fold_left (fun pt' pid => pt_add pt' pid k) pids pt in
            pt_wf pt' /\ (forall pid, In pid pids -> pt_lists pt' pid k) /\ (forall q a, pt_lists pt q a -> pt_lists pt' q a)).
  { intros k. induction pids as [|pid r IH]; intros pt Hw; cbn [fold_left].
    - split; [exact Hw|]. split; [intros pid []|auto].
    - destruct (IH (pt_add pt pid k) (pt_add_wf pt pid k Hw)) as (W' & L' & M').
      split; [exact W'|]. split.
      + intros p [<-|I]; [|exact (L' p I)]. apply M'. exact (pt_add_new pt pid k).
      + intros q a (ns & I & Ia). apply M'. exact (pt_add_mono pt pid k q ns a I Ia). }
  assert (Outer : forall nodes pt, pt_wf pt ->
            let pt' := fold_left (fun pt (p : N * inode) =>
                         fold_left (fun pt' pid => pt_add pt' pid (fst p)) (match i_hp (snd p) with Some l => l | None => [] end) pt) nodes pt in
            pt_wf pt' /\ (forall k A pid, In (k, A) nodes -> In pid (hp_of A) -> pt_lists pt' pid k) /\
            (forall q a, pt_lists pt q a -> pt_lists pt' q a)).
  { induction nodes as [|[k A] r IH]; intros pt Hw; cbn [fold_left].
    - split; [exact Hw|]. split; [intros k A pid []|auto].
    - cbn [fst snd]. fold (hp_of A).
      destruct (Inner k (hp_of A) pt Hw) as (W1 & L1 & M1).
      destruct (IH _ W1) as (W2 & L2 & M2).
      split; [exact W2|]. split.
      + intros k' A' pid [E|I] Hp; [inversion E; subst; apply M2; exact (L1 pid Hp)|exact (L2 k' A' pid I Hp)].
      + intros q a Hl. apply M2. apply M1. exact Hl. }
  destruct (Outer (gnodes T) [] (conj (NoDup_nil _) (fun q ns (I : In (q, ns) []) => match I with end))) as (W & L & _).
  split; [exact W|exact L].
Qed.

(** * sums *)
Lemma sumF_split (f : N -> Z) (l : list N) :
  sumF f (filter (fun n => 0 <? f n) l) - sumF (fun n => - f n) (filter (fun n => f n <? 0) l) = sumF f l.
Proof.
  induction l as [|x r IH]; simpl; [reflexivity|].
  destruct (Z.ltb_spec 0 (f x)), (Z.ltb_spec (f x) 0); simpl; lia.
Qed.
Lemma sumF_zero (f : N -> Z) (l : list N) : (forall n, In n l -> f n = 0) -> sumF f l = 0.
Proof. induction l as [|x r IH]; simpl; intros H; [reflexivity|]. rewrite (H x (or_introl eq_refl)), IH; [reflexivity|]. intros n I. apply H. right. exact I. Qed.
Lemma sumF_ext (f g : N -> Z) (l : list N) : (forall n, In n l -> f n = g n) -> sumF f l = sumF g l.
Proof. induction l as [|x r IH]; simpl; intros H; [reflexivity|]. rewrite (H x (or_introl eq_refl)), IH; [reflexivity|]. intros n I. apply H. right. exact I. Qed.
(** a sum of sums, exchanged *)
Definition sumX {X} (g : X -> Z) (l : list X) : Z := fold_right (fun h acc => g h + acc) 0 l.
Lemma sumF_sumX {X} (w : X -> N -> Z) (Hs : list X) (l : list N) :
  sumF (fun n => sumX (fun h => w h n) Hs) l = sumX (fun h => sumF (w h) l) Hs.
Proof.
  induction l as [|x r IH]; simpl.
  - induction Hs as [|h s IHs]; simpl; [reflexivity|]. rewrite <- IHs. reflexivity.
  - rewrite IH. clear IH. induction Hs as [|h s IHs]; simpl; [reflexivity|]. rewrite <- IHs. lia.
Qed.
Lemma sumX_nonpos {X} (g : X -> Z) (l : list X) : (forall h, In h l -> g h <= 0) -> sumX g l <= 0.
Proof. induction l as [|x r IH]; simpl; intros H; [lia|]. pose proof (H x (or_introl eq_refl)). assert (sumX g r <= 0) by (apply IH; intros h I; apply H; right; exact I). lia. Qed.

(** * the criterion *)
Section Criterion.
  Variable T : its.
  Variable X : Type.
  Variable Hs : list X.                 (* the hydrogen transfers *)
  Variable w : X -> N -> Z.             (* what transfer h does to the reactant-minus-product count of atom n *)
  Hypothesis Hdl : forall n, dl_of T n = sumX (fun h => w h n) Hs.
  (** every atom a transfer touches carries one pair id of that transfer *)
  Hypothesis Hsupp : forall h, In h Hs -> exists pid, forall n, w h n <> 0 -> exists A, In (n, A) (gnodes T) /\ In pid (hp_of A).
  Hypothesis Hbal : forall h c, In h Hs -> NoDup c -> (forall n, w h n <> 0 -> In n c) -> sumF (w h) c <= 0.

  Theorem balanced_components : pairs_okb T = true.
  Proof.
    unfold pairs_okb. apply forallb_forall. intros c Ic.
    destruct (pair_to_nodes_complete T) as ([Hk Hg] & Hcomp).
    destruct (components_inv (pair_to_nodes T)) as (HD & HN & HG).
    { intros [q ns] I. exact (Hg q ns I). }
    set (c' := sort_N c).
    assert (Nc' : NoDup c') by (apply nodup_sort_N; exact (HN c Ic)).
    unfold comp_balancedb. apply Z.leb_le. pose proof (sumF_split (dl_of T) c') as Hsp.
    assert (Hle : sumF (dl_of T) c' <= 0).
    { rewrite (sumF_ext (dl_of T) (fun n => sumX (fun h => w h n) Hs) c') by (intros n _; apply Hdl).
      rewrite sumF_sumX. apply sumX_nonpos. intros h Ih.
      (* either the transfer touches an atom of this component, then all atoms it touches are here; or none *)
      destruct (existsb (fun n => negb (Z.eqb (w h n) 0)) c') eqn:Ex.
      - apply existsb_exists in Ex. destruct Ex as (n0 & I0 & W0). apply negb_true_iff in W0. apply Z.eqb_neq in W0.
        apply (Hbal h c' Ih Nc'). intros n Wn.
        destruct (Hsupp h Ih) as (pid & Hp). destruct (Hp n0 W0) as (A0 & IA0 & P0). destruct (Hp n Wn) as (A & IA & P).
        destruct (Hcomp n0 A0 pid IA0 P0) as (ns0 & J0 & K0). destruct (Hcomp n A pid IA P) as (ns & J & K).
        assert (ns = ns0) by (pose proof (assoc_nodup_in pid _ ns Hk J); pose proof (assoc_nodup_in pid _ ns0 Hk J0); congruence).
        subst ns. destruct (HG (pid, ns0) J0) as (c1 & Ic1 & S1). cbn [snd] in S1.
        assert (c1 = c).
        { unfold c' in I0. apply (proj1 (in_sort_N_iff n0 c)) in I0. destruct (Disj_in _ HD c1 c n0 Ic1 Ic (S1 n0 K0) I0) as [E|[]]. exact E. }
        subst c1. unfold c'. apply (proj2 (in_sort_N_iff n c)). exact (S1 n K).
      - assert (sumF (w h) c' = 0); [|lia]. apply sumF_zero. intros n In_.
        destruct (Z.eqb_spec (w h n) 0) as [E|Ne]; [exact E|]. exfalso.
        assert (existsb (fun n => negb (Z.eqb (w h n) 0)) c' = true); [|congruence].
        apply existsb_exists. exists n. split; [exact In_|]. apply negb_true_iff. apply Z.eqb_neq. exact Ne. }
    fold c'. lia.
  Qed.

  (** hence _explicit_h returns *)
  Theorem explicit_h_total : explicit_h T <> None.
  Proof. intros E. apply explicit_h_crash_iff in E. rewrite balanced_components in E. discriminate. Qed.
  (** ... in whatever order it visits the atoms of a group (the code iterates over a Python set) *)
  Theorem explicit_h_ord_total (ord : list N -> list N) :
    (forall l x, In x (ord l) <-> In x l) -> (forall l, NoDup l -> NoDup (ord l)) -> explicit_h_ord ord T <> None.
  Proof. intros O1 O2 E. apply (explicit_h_ord_crash_iff ord O1 O2) in E. rewrite balanced_components in E. discriminate. Qed.
End Criterion.
