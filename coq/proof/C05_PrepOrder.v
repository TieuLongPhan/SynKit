(** C05 — rule preparation in the implicit-hydrogen mode does not look at the insertion order of the
    template: two writings of the template ITS (same ids, labels, adjacency) are prepared into two writings of the
    same rule, in both directions.  With proof/C05_Result.v and C05_AllStrat.v this moves the set-level invariance from the prepared rule to the
    template. Stdlib lists. *)
From Coq Require Import List ZArith Bool.
From SK Require Import lib.LGraph.
From SK Require Import model.C03_Model proof.C03_Proof proof.C03_Glue proof.C03_Iso proof.C03_Backward.
From SK Require Import model.C05_Model proof.C05_Order.
Import ListNotations.
Local Open Scope Z_scope.

Section WithThr.
Context {TH : Thr}.


(** adjacency through "keep the edges that satisfy [c], relabelled by [f]" *)
Lemma find_edge_flat_sub {B C} (c : B -> bool) (f : B -> C) (es : list (N * N * B)) a b : simpleP (pairs es) ->
  find_edge a b (flat_map (fun e : N * N * B => let '(u, v, x) := e in if c x then [(u, v, f x)] else []) es)
  = match find_edge a b es with Some x => if c x then Some (f x) else None | None => None end.
Proof.
  induction es as [|[[p q] y] r IH]; simpl; intros Hs; [reflexivity|].
  destruct Hs as (Hne & Hr & Hs).
  change ((N.eqb p a && N.eqb q b) || (N.eqb p b && N.eqb q a)) with (peq p q a b).
  destruct (peq p q a b) eqn:E.
  - destruct (c y) eqn:Ey; simpl.
    + change ((N.eqb p a && N.eqb q b) || (N.eqb p b && N.eqb q a)) with (peq p q a b). rewrite E. reflexivity.
    + apply find_edge_none_all. intros u v z I. apply in_flat_map in I. destruct I as ([[u' v'] y'] & I & I').
      destruct (c y'); [|destruct I']. destruct I' as [I'|[]]. inversion I'; subst.
      apply (peq_false_trans u v p q a b); [|exact E]. apply Hr. unfold pairs.
      change (u, v) with (fst (u, v, y')). apply in_map. exact I.
  - destruct (c y); simpl.
    + change ((N.eqb p a && N.eqb q b) || (N.eqb p b && N.eqb q a)) with (peq p q a b). rewrite E. apply IH; exact Hs.
    + apply IH; exact Hs.
Qed.

(** a well-formed writing: distinct ids, simple edge list *)
Definition wf_its (T : its) : Prop := NoDup (node_ids T) /\ simple_edgesb (gedges T) = true.

Section TwoWritings.
  Variables T T' : its.
  Hypothesis HS : same_graph T T'.
  Hypothesis Hw : simple_edgesb (gedges T) = true.
  Hypothesis Hw' : simple_edgesb (gedges T') = true.

  Lemma dec_side_same sn se : same_graph (dec_side sn se T) (dec_side sn se T').
  Proof.
    assert (Eids : forall X : its, node_ids (dec_side sn se X) = node_ids X)
      by (intros X; unfold node_ids, dec_side; simpl; rewrite map_map; reflexivity).
    destruct HS as (L & A & _). apply (same_graph_image T T' _ _ HS (Eids T) (Eids T')).
    - intros u. unfold label. rewrite !dec_gnodes, !(assoc_map (fun a => dec_node (sn a))).
      change (assoc u (gnodes T')) with (label T' u). change (assoc u (gnodes T)) with (label T u). rewrite L. reflexivity.
    - intros u v. rewrite (dec_adj sn se T' u v (simpleP_of_b _ Hw')), (dec_adj sn se T u v (simpleP_of_b _ Hw)), A. reflexivity.
  Qed.

  Lemma invert_same : same_graph (invert_template T) (invert_template T').
  Proof.
    destruct HS as (L & A & _). apply (same_graph_image T T' _ _ HS (invert_ids T) (invert_ids T')).
    - intros u. rewrite !invert_label, L. reflexivity.
    - intros u v.
      assert (Einv : forall X : its, gedges (invert_template X)
                = flat_map (fun e : N * N * iedge => let '(a, b, x) := e in
                     if (0 <? eH x) || (0 <? eG x)
                     then [(a, b, (fun x => let g := if 0 <? eH x then eH x else 0 in let h := if 0 <? eG x then eG x else 0 in (g, h, g - h)) x)]
                     else []) (gedges X))
        by (intros X; unfold invert_template; simpl; apply flat_map_ext; intros [[a b] x]; reflexivity).
      unfold LGraph.adj. rewrite !Einv.
      rewrite (find_edge_flat_sub (fun x => (0 <? eH x) || (0 <? eG x)) _ (gedges T') u v (simpleP_of_b _ Hw')).
      rewrite (find_edge_flat_sub (fun x => (0 <? eH x) || (0 <? eG x)) _ (gedges T) u v (simpleP_of_b _ Hw)).
      change (find_edge u v (gedges T')) with (LGraph.adj T' u v). change (find_edge u v (gedges T)) with (LGraph.adj T u v).
      rewrite A. reflexivity.
  Qed.
End TwoWritings.

(** explicit X-H bonds are a property of labels and adjacency *)
Lemma has_XH_true_iff (g : molg) : simple_edgesb (gedges g) = true ->
  (has_XH g = true <-> exists u v, LGraph.adj g u v <> None /\ xorb (is_H_m g u) (is_H_m g v) = true).
Proof.
  intros Hs. unfold has_XH. rewrite existsb_exists. split.
  - intros ([[u v] x] & I & Hx). exists u, v. split; [|exact Hx].
    unfold LGraph.adj. rewrite (simple_in_find (gedges g) u v x (simpleP_of_b _ Hs) I). discriminate.
  - intros (u & v & Ha & Hx). destruct (LGraph.adj g u v) as [x|] eqn:E; [|congruence].
    unfold LGraph.adj in E. destruct (find_edge_in _ _ _ _ E) as (p & q & I & Hp).
    exists (p, q, x). split; [exact I|].
    unfold peq in Hp. apply orb_prop in Hp.
    destruct Hp as [Hp|Hp]; apply andb_prop in Hp; destruct Hp as [E1 E2]; apply N.eqb_eq in E1, E2; subst; [exact Hx|].
    rewrite xorb_comm. exact Hx.
Qed.

Lemma has_XH_same (g g' : molg) : same_graph g g' ->
  simple_edgesb (gedges g) = true -> simple_edgesb (gedges g') = true -> has_XH g' = has_XH g.
Proof.
  intros (L & A & _) Hs Hs'.
  assert (HH : forall u, is_H_m g' u = is_H_m g u) by (intros u; unfold is_H_m; rewrite L; reflexivity).
  destruct (has_XH g) eqn:E.
  - apply (has_XH_true_iff g' Hs'). apply (has_XH_true_iff g Hs) in E. destruct E as (u & v & Ha & Hx).
    exists u, v. rewrite A, !HH. split; assumption.
  - destruct (has_XH g') eqn:E'; [|reflexivity]. exfalso.
    apply (has_XH_true_iff g' Hs') in E'. destruct E' as (u & v & Ha & Hx).
    assert (has_XH g = true) by (apply (has_XH_true_iff g Hs); exists u, v; rewrite <- A, <- !HH; split; assumption).
    congruence.
Qed.

Lemma dec_side_simple sn se (T : its) : simple_edgesb (gedges T) = true -> simple_edgesb (gedges (dec_side sn se T)) = true.
Proof. intros H. unfold dec_side; simpl. exact (simple_flat_sub (fun x => 0 <? se x) se (gedges T) H). Qed.

Lemma invert_simple (T : its) : simple_edgesb (gedges T) = true -> simple_edgesb (gedges (invert_template T)) = true.
Proof.
  intros Hw. unfold invert_template; simpl.
  exact (simple_flat_sub (fun x => (0 <? eH x) || (0 <? eG x))
           (fun x => let g := if 0 <? eH x then eH x else 0 in let h := if 0 <? eG x then eG x else 0 in (g, h, g - h)) (gedges T) Hw).
Qed.

Lemma oriented_same (inv : bool) (T T' : its) :
  same_graph T T' -> simple_edgesb (gedges T) = true -> simple_edgesb (gedges T') = true ->
  let U := if inv then invert_template T else T in
  let U' := if inv then invert_template T' else T' in
  same_graph U U' /\ simple_edgesb (gedges U) = true /\ simple_edgesb (gedges U') = true.
Proof.
  intros HS Hw Hw'. destruct inv; cbv zeta; [|auto].
  split; [apply invert_same; assumption | split; apply invert_simple; assumption].
Qed.

(** two writings of the template are prepared into two writings of the same rule (implicit-hydrogen mode, pattern
    without explicit X-H bonds) *)
Theorem prepare_same (inv : bool) (T T' : its) (p : prepared) :
  same_graph T T' -> simple_edgesb (gedges T) = true -> simple_edgesb (gedges T') = true ->
  prepare inv true T = Some p -> p_flag p = false ->
  exists p', prepare inv true T' = Some p' /\ p_flag p' = false /\
             same_graph (p_rc p) (p_rc p') /\ same_graph (p_pat p) (p_pat p').
Proof.
  intros HS Hw Hw' Hprep Hflag.
  destruct (oriented_same inv T T' HS Hw Hw') as (HSU & HwU & HwU').
  set (U := if inv then invert_template T else T) in *. set (U' := if inv then invert_template T' else T') in *.
  pose proof HSU as (_ & _ & _ & N1 & N2).
  unfold prepare in *. change (negb true) with false in *. fold U in Hprep. fold U'.
  assert (Eb : forall X : its, NoDup (node_ids X) -> synrule X false = Some (X, dec_side iG eG X, dec_side iH eH X)).
  { intros X HX. unfold synrule. simpl.
    change (dec_side iG eG X) with (fst (its_decompose X)). change (dec_side iH eH X) with (snd (its_decompose X)).
    rewrite (refresh_types_id X HX). reflexivity. }
  rewrite (Eb U N1) in Hprep. rewrite (Eb U' N2). inversion Hprep; subst p; clear Hprep. simpl in Hflag.
  pose proof (dec_side_same U U' HSU HwU HwU' iG eG) as HL.
  assert (Hx : has_XH (dec_side iG eG U') = false).
  { rewrite (has_XH_same _ _ HL (dec_side_simple iG eG U HwU) (dec_side_simple iG eG U' HwU')). exact Hflag. }
  eexists. split; [reflexivity|]. simpl. rewrite Hx, Hflag. split; [reflexivity|]. split; [exact HSU | exact HL].
Qed.

End WithThr.
