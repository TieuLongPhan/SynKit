(** C10 — proofs: the hydrogen round trip on graphs that DO contain hydrogen atoms, as long as every hydrogen atom
    is "bare": it carries no implicit hydrogens of its own and all its neighbours are hydrogens (H2, H+, H-, a lone H — the atoms
    h_to_implicit keeps; SynKit commits 7497a0b / 3ba7a77).  For every networkx graph of that shape, any node list, either mode:
    h_to_implicit (h_to_explicit g nodes its) has the nodes of g in the same order (every added hydrogen is gone again, the bare
    hydrogens stay), at every node the dictionary of g except the typesGH halves h_to_explicit lowered ([h_restore_gen]; hcount IS
    restored), and the bond dictionaries of g up to the normalisation [fin_edge] of the ITS mode (theorem [h_roundtrip_bare] of
    proof/C10_HRoundIts.v).  Here: the domain as a boolean, and the witnesses. *)
From Coq Require Import String List NArith ZArith Bool Lia.
From SK Require Import lib.LGraph lib.StrJoin model.C10_Model model.C10_Rxn proof.C10_Views proof.C10_Build proof.C10_Copy
  proof.C10_Hydrogen proof.C10_HRound proof.C10_HRoundIts.
Import ListNotations.
Local Open Scope Z_scope.

Definition bare_Hb (g : gr) : bool :=
  forallb (fun p : N * natt => negb (el_is_H (snd p)) || ((dflt (a_hc (snd p)) 0 <=? 0) && forallb (is_H g) (nbrs g (fst p)))) (gnodes g).
Lemma bare_Hb_spec g : bare_Hb g = true -> bare_H g.
Proof.
  unfold bare_Hb, bare_H. rewrite forallb_forall. intros H n a La Ha. apply assoc_in in La. specialize (H _ La). simpl in H.
  rewrite Ha in H. simpl in H. apply andb_true_iff in H. destruct H as [H1 H2]. split; [apply Z.leb_le, H1|].
  intros w Hw. rewrite forallb_forall in H2. apply H2. apply in_nbrs_adj. exact Hw.
Qed.

Lemma cnt_pos_in n P : (0 < cnt n P)%nat -> exists h, In (h, n) P.
Proof.
  unfold cnt. induction P as [|[h m] t IH]; simpl; [lia|]. destruct (N.eqb_spec m n) as [->|]; simpl; [intros _; exists h; auto|].
  intros H. destruct (IH H) as [h' Hh']. exists h'. auto.
Qed.

Theorem h_roundtrip_bareb (g : gr) (nodes : option (list N)) (its : bool) : gwfb g = true -> bare_Hb g = true ->
  let g' := h_to_implicit (h_to_explicit g nodes its) in
  node_ids g' = node_ids g /\
  (forall n a, label g n = Some a ->
     label g' n = Some (if mem n (exp_nodes g nodes) then h_restore_gen its a else a)) /\
  (forall u v, adj g' u v = option_map (fin_edge its) (adj g u v)).
Proof. intros Hw Hb. apply h_roundtrip_bare; [exact Hw|apply bare_Hb_spec, Hb]. Qed.

(** non-vacuity: methanol next to molecular hydrogen and a proton — C(h3)-O(h1), H-H, H+ : five atoms, three of them hydrogens *)
Definition mkh (el : string) (hc q : Z) : natt := NA (Some (s2l el)) (Some false) (Some hc) (Some q) (Some 0) None.
Definition ex_bare : gr :=
  LG [(1%N, mkh "C" 3 0); (2%N, mkh "H" 0 0); (3%N, mkh "O" 1 0); (4%N, mkh "H" 0 0); (7%N, mkh "H" 0 1)]
     [(1%N, 3%N, EA (Some (OS 2)) None); (4%N, 2%N, EA (Some (OS 2)) None)].
Example h_roundtrip_bare_ex :
  gwfb ex_bare = true /\ bare_Hb ex_bare = true /\ no_H ex_bare = false /\ no_tgh ex_bare = true /\
  node_ids (h_to_explicit ex_bare None false) = [1; 2; 3; 4; 7; 8; 9; 10; 11]%N /\
  h_to_implicit (h_to_explicit ex_bare None false) = copy ex_bare /\
  node_ids (h_to_implicit (h_to_explicit ex_bare None true)) = [1; 2; 3; 4; 7]%N /\
  adj (h_to_implicit (h_to_explicit ex_bare None true)) 2%N 4%N = Some (EA (Some (OP 2 2)) (Some 0)) /\
  label (h_to_implicit (h_to_explicit ex_bare None true)) 7%N = Some (mkh "H" 0 1).
Proof. vm_compute. repeat split. Qed.
(** the domain is needed: a hydrogen bonded to a heavy atom is folded into it (the graph is not restored, the count is) *)
Example h_roundtrip_bare_needed :
  let g := LG [(1%N, mkh "C" 2 0); (2%N, mkh "H" 0 0)] [(1%N, 2%N, EA (Some (OS 2)) None)] in
  bare_Hb g = false /\ node_ids (h_to_implicit (h_to_explicit g None false)) = [1%N].
Proof. vm_compute. split; reflexivity. Qed.

