(** C15 — the mapping API of RXNSide (model/C15_Side.v): what every mutator does to the coefficient function
    [coef sd x] (0 = absent), and that nothing else in the pool changes. *)
From stdpp Require Import gmap strings sets.
From SK Require Import lib.Tok model.C15_Model model.C15_Ext proof.C15_Ext model.C15_Side.
Local Open Scope string_scope.
Local Open Scope Z_scope.

Lemma coef_pos sd x : 0 ≤ coef sd x.
Proof. unfold coef. destruct (sd !! x); lia. Qed.
Lemma coef_delete sd x y : coef (delete x sd) y = if decide (y = x) then 0 else coef sd y.
Proof. unfold coef. destruct (decide (y = x)) as [->|?]; [by rewrite (lookup_delete sd x)|by rewrite (lookup_delete_ne sd x y)]. Qed.
Lemma coef_insert sd x p y : coef (<[ x := p ]> sd) y = if decide (y = x) then Z.pos p else coef sd y.
Proof. unfold coef. destruct (decide (y = x)) as [->|?]; [by rewrite (lookup_insert sd x)|by rewrite (lookup_insert_ne sd x y)]. Qed.

(** side[x] = c : the entry becomes c, or disappears when c <= 0 *)
Lemma coef_side_set sd x c y : coef (side_set sd x c) y = if decide (y = x) then Z.max 0 c else coef sd y.
Proof.
  unfold side_set. destruct (Z.leb_spec c 0).
  - rewrite coef_delete. destruct (decide _); [lia|done].
  - rewrite coef_insert. destruct (decide _); [|done]. rewrite Z2Pos.id by lia. lia.
Qed.
(** side.incr(x, by): the count moves by [by], floored at 0 (= removed) *)
Lemma coef_side_incr sd x b y : coef (side_incr sd x b) y = if decide (y = x) then Z.max 0 (coef sd x + b) else coef sd y.
Proof. unfold side_incr. apply coef_side_set. Qed.

(** a side is a positive multiset whatever is done to it: every stored count is positive (by construction of the model:
    counts are [positive]) and [coef] is 0 exactly off the key set *)
Lemma coef_zero_iff sd x : coef sd x = 0 ↔ sd !! x = None.
Proof. unfold coef. destruct (sd !! x); split; (done || lia). Qed.

(** the pool: an op touches at most one slot *)
Lemma sstep_frame p o j :
  match o with SNew k _ | SSet k _ _ | SIncr k _ _ | SPop k _ _ | SUpdate k _ => j ≠ k | SCopy _ k' => j ≠ k' | SQuery _ _ => True end →
  (sstep p o).1 !! j = p !! j.
Proof. destruct o; cbn; intros Hj; try done; by rewrite list_lookup_insert_ne. Qed.
Lemma sstep_length p o : length (sstep p o).1 = length p.
Proof. destruct o; cbn; by rewrite ?insert_length. Qed.

(** what each mutator does to its slot (slot inside the pool) *)
Lemma sstep_spec p o k : (k < length p)%nat →
  let sd := getp p k in let sd' := getp (sstep p o).1 k in
  match o with
  | SNew k0 l => k0 = k → ∀ y, coef sd' y = total y l
  | SSet k0 x c => k0 = k → ∀ y, coef sd' y = if decide (y = x) then Z.max 0 c else coef sd y
  | SIncr k0 x b => k0 = k → ∀ y, coef sd' y = if decide (y = x) then Z.max 0 (coef sd x + b) else coef sd y
  | SPop k0 x d => k0 = k → (∀ y, coef sd' y = if decide (y = x) then 0 else coef sd y) ∧
                            (sstep p o).2 = topz (match sd !! x with Some c => Some (Z.pos c) | None => d end)
  | SUpdate k0 l => k0 = k → ∀ y, coef sd' y = coef sd y + total y l
  | SCopy k0 k' => k' = k → sd' = getp p k0
  | SQuery _ _ => sd' = sd
  end.
Proof.
  intros Hk sd sd'. unfold sd', sd, getp.
  destruct o as [k0 l|k0 x c|k0 x b|k0 x d|k0 l|k0 k'|k0 q]; cbn [sstep fst snd]; try intros ->;
    rewrite ?nth_lookup, ?list_lookup_insert by done; cbn [default].
  - intros y. apply coef_normalize_items.
  - intros y. rewrite <-nth_lookup. apply coef_side_set.
  - intros y. rewrite <-nth_lookup. apply coef_side_incr.
  - split; [|by rewrite <-nth_lookup]. intros y. rewrite <-nth_lookup. apply coef_delete.
  - intros y. rewrite <-nth_lookup. apply coef_side_update.
  - by rewrite <-nth_lookup.
  - done.
Qed.

Definition exs_ops : list sop :=
  [ SNew 0 [IPair "A" 2; ILabel "B"; IPair "A" 1; IPair "Z" 0; ILabel ""]; SCopy 0 1; SIncr 0 "A" (-3); SSet 0 "B" 12; SPop 1 "A" None;
    SPop 1 "Q" (Some 7); SUpdate 0 [IPair "B" 1; ILabel "C"]; SNew 2 [] ].
Definition exs_pool : list side := (foldl (λ p o, (sstep p o).1) (replicate 3 ∅) exs_ops).
Example ex_side_nonvacuous :
  (coef (getp exs_pool 0) <$> ["A"; "B"; "C"; "Z"]) = [0; 13; 1; 0] ∧ (coef (getp exs_pool 1) <$> ["A"; "B"]) = [0; 1] ∧
  getp exs_pool 2 = ∅ ∧
  (sstep (replicate 3 ∅) (SPop 1 "Q" (Some 7))).2 = L [I 7] ∧
  sanswer (getp exs_pool 0) (SArity true) = I 14 ∧ sanswer (getp exs_pool 0) (SArity false) = tN 2.
Proof. split_and!; by vm_compute. Qed.
