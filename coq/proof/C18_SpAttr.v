(** C18 — attribute selections on the species view (model/C18_SpAttrModel.v): the generic canonicaliser finds a leaf for every
    selection and its canonical graph is the view relabelled by a bijection onto k+1..k+n (clause 1); the species view with the
    aggregate coefficients is a well-formed graph. *)
From Coq Require Import List NArith ZArith Bool Arith Lia Permutation.
From SK Require Import lib.IRSortKeys lib.IRCore lib.IRSearch lib.StrJoin lib.C18_IRValid model.C18_Model model.C18_AttrModel
  model.C18_SpAttrModel proof.C18_Order proof.C18_Spec proof.C18_Graph proof.C18_Canon proof.C18_View.
From SK Require lib.IRInst.
Import ListNotations.

Section G.
Variables (g : vgraph) (nv : N -> list (Z * list N)) (ev : eattr -> list (Z * list N)) (nnk nek : nat).

Definition leaves_ofG : list (list N) :=
  let n := length (vnodes g) in leaves lexleb (sigG g nv ev) (S n) (S n) (init_partG g nv nnk) [].

Lemma canon_searchG_fold :
  canon_searchG g nv ev nnk nek = fold_left (visit lexlebN (labelG g nv ev nek)) leaves_ofG (None, []).
Proof.
  unfold canon_searchG, leaves_ofG.
  apply (search_is_fold lexleb (sigG g nv ev) (S (length (vnodes g))) lexlebN lexlebN_total lexlebN_trans lexlebN_antisym
           (labelG g nv ev nek) no_bound).
  intros; reflexivity.
Qed.

Lemma init_partG_vpart : NoDup (node_ids g) -> vpart (node_ids g) (init_partG g nv nnk).
Proof.
  intros Hnd. unfold init_partG. destruct nnk as [|k].
  - destruct (node_ids g) as [|v0 l] eqn:En; [split; [apply Permutation_refl|constructor]|]. rewrite <- En in *. split.
    + simpl. rewrite app_nil_r. apply sortN_perm. auto.
    + constructor; auto. intro E. pose proof (sortN_perm _ Hnd) as P. rewrite E, En in P. apply Permutation_nil in P. discriminate.
  - split.
    + eapply perm_trans.
      * apply (concat_perm_pointwise _ (fun k => filter (fun v => eqb lexleb (nkeyG nv v) k) (node_ids g))).
        intros k0 _. apply sortN_perm. apply NoDup_filter. auto.
      * rewrite concat_map_flat_map.
        apply (groups_perm _ lexleb IRInst.lexleb_total IRInst.lexleb_antisym (nkeyG nv)).
        -- apply (ssorted_NoDup _ lexleb IRInst.lexleb_total).
           apply (sort_dedup_sorted lexleb IRInst.lexleb_total (fun a b c H1 H2 => IRInst.lexleb_trans a b c H1 H2) IRInst.lexleb_antisym).
        -- intros v Hv. apply (sort_dedup_in lexleb IRInst.lexleb_antisym). apply in_map. auto.
    + apply Forall_forall. intros c Hc. apply in_map_iff in Hc. destruct Hc as (k0 & <- & Hk).
      apply (proj1 (sort_dedup_in lexleb IRInst.lexleb_antisym _ _)) in Hk. apply in_map_iff in Hk. destruct Hk as (v & <- & Hv).
      intro E.
      assert (Hin : In v (sortN (filter (fun v0 => eqb lexleb (nkeyG nv v0) (nkeyG nv v)) (node_ids g)))).
      { apply sortN_in. apply filter_In. split; auto. apply (eqb_eq lexleb IRInst.lexleb_total IRInst.lexleb_antisym). auto. }
      rewrite E in Hin. contradiction.
Qed.

Theorem canon_isoG : wf g ->
  fst (canon_searchG g nv ev nnk nek) <> None /\
  forall lab perm, fst (canon_searchG g nv ev nnk nek) = Some (lab, perm) ->
    lab = labelG g nv ev nek perm /\
    canon_copy g perm.
Proof.
  intros Hw. pose proof (init_partG_vpart (proj1 Hw)) as Hvp.
  rewrite canon_searchG_fold. split.
  - apply fold_visit_some. left. unfold leaves_ofG.
    apply (leaves_nonempty _ lexleb IRInst.lexleb_total (fun a b c H1 H2 => IRInst.lexleb_trans a b c H1 H2) IRInst.lexleb_antisym
             (sigG g nv ev) _ (node_ids g) (proj1 Hw)); auto. unfold node_ids. rewrite map_length. lia.
  - intros lab perm Hb.
    assert (HB : lab = labelG g nv ev nek perm /\ In perm leaves_ofG).
    { revert Hb. apply fold_visit_best. simpl. intros; discriminate. }
    destruct HB as [El Hl]. split; auto.
    unfold leaves_ofG in Hl.
    destruct (leaves_shape _ lexleb IRInst.lexleb_total (fun a b c H1 H2 => IRInst.lexleb_trans a b c H1 H2) IRInst.lexleb_antisym
                (sigG g nv ev) _ (node_ids g) (proj1 Hw) _ _ _ _ Hvp Hl) as (pre & r & -> & Hr & _).
    exact (canon_graph_leaf g pre r Hw Hr).
Qed.
End G.

(* ---------------- the species view with aggregate coefficients is a graph ---------------- *)
Lemma upd_arc_upsert u v a : upsert _ _ akey (u, v) (upd_arc u v a).
Proof.
  split; [reflexivity|]. intros e r. simpl. destruct (N.eqb (asrc e) u && N.eqb (adst e) v) eqn:E; [left|right].
  - apply akey_eqb in E. rewrite E. auto.
  - split; [reflexivity|]. intros E'. apply akey_eqb in E'. congruence.
Qed.
Lemma upd_arc_in u v a l x : In x (map akey (upd_arc u v a l)) <-> x = (u, v) \/ In x (map akey l).
Proof. exact (upsert_keys_in _ _ _ _ _ (upd_arc_upsert _ _ _) l x). Qed.
Lemma upd_arc_nodup u v a l : NoDup (map akey l) -> NoDup (map akey (upd_arc u v a l)).
Proof. exact (upsert_keys_nodup _ _ _ _ _ (upd_arc_upsert _ _ _) l). Qed.
Lemma upd_arc_mem u v a l e : In e (upd_arc u v a l) -> In e l \/ akey e = (u, v).
Proof.
  induction l as [|e0 l IH]; simpl.
  - intros [<-|[]]. right. reflexivity.
  - destruct (N.eqb (asrc e0) u && N.eqb (adst e0) v) eqn:E; simpl; intros [<-|I]; auto.
    destruct (IH I); auto.
Qed.

Theorem view_spS_wf n : net_closed n -> wf (view_spS n).
Proof.
  intros Hc. unfold view_spS.
  destruct (species_nodes_GI (nspecies n)) as [H0 Hin].
  set (g0 := VG (fold_left (fun l s => ensure_node s KSPECIES l) (nspecies n) []) []) in *.
  set (P := fun g => wf g /\ forall s, In s (nspecies n) -> In s (node_ids g)).
  assert (HP : P (fold_left spS_add_rxn (nrxns n) g0)).
  { apply (fold_left_inv P); [|split; [apply H0|auto]].
    intros g r Hr Hg. unfold spS_add_rxn.
    apply (fold_left_inv P); auto. intros ga rc Hrc Hga.
    apply (fold_left_inv P); auto. intros gb pc Hpc [(Hn & Ha & He) Hsb].
    split; [|exact Hsb]. split; [exact Hn|]. split; [apply upd_arc_nodup; exact Ha|].
    intros e Hin'. simpl in Hin'. destruct (upd_arc_mem _ _ _ _ _ Hin') as [I|K]; [apply He; auto|].
    unfold akey in K. inversion K as [[K1 K2]]. simpl. rewrite K1, K2. split; apply Hsb; apply (Hc r Hr); apply in_or_app; auto. }
  exact (proj1 HP).
Qed.

(** the aggregation: the coefficient pair on an arc is the componentwise minimum over the contributions *)
Lemma upd_arc_attr u v a l : NoDup (map akey l) ->
  find_arc_l (upd_arc u v a l) u v =
  Some (match find_arc_l l u v with Some b => (Z.min (fst b) (fst a), Z.min (snd b) (snd a)) | None => a end).
Proof.
  induction l as [|e l IH]; simpl; intros Hnd.
  - rewrite !N.eqb_refl. reflexivity.
  - inversion Hnd; subst. destruct (N.eqb (asrc e) u && N.eqb (adst e) v) eqn:E; simpl.
    + unfold asrc, adst, aattr. simpl. rewrite !N.eqb_refl. reflexivity.
    + rewrite E. apply IH. auto.
Qed.

(** the default species view cannot see coefficients, the aggregated one can: A >> B versus 2A >> B (ids A=0 B=1 r=2) *)
Definition n_ab : net := Net [0;1]%N [Rxn 2%N [(0%N, 1%Z)] [(1%N, 1%Z)]].
Definition n_2ab : net := Net [0;1]%N [Rxn 2%N [(0%N, 2%Z)] [(1%N, 1%Z)]].
Lemma species_view_coefficients_invisible : exists n n' : net, view false true n = view false true n' /\ view_spS n <> view_spS n'.
Proof. exists n_ab, n_2ab. split; [reflexivity|vm_compute; discriminate]. Qed.
