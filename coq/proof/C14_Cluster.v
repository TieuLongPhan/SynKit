(** C14 — batched clustering (BatchCluster.fit with any batch size) gives exactly the classes of
    one-shot clustering (GraphCluster.iterative_cluster), for every comparison [iso] (C13 instantiates
    it with graph isomorphism) and every pre-grouping attribute.  No property of [iso] is needed: both
    algorithms give an item the class of the FIRST class representative [r] with [same r item], and
    both put the representative on the left. *)
From Coq Require Import NArith List Arith Lia.
Import ListNotations.
From SK Require Import model.C14_Model.

Section ClusterProof.
  Variable A : Type.
  Variable iso : A -> A -> bool.
  Variable att : A -> N.

  Notation same := (same A iso att).
  Notation cluster := (cluster A iso att).
  Notation oneshot := (oneshot A iso att).
  Notation oneshot_aux := (oneshot_aux A iso att).
  Notation mark := (mark A iso att).
  Notation lib_check := (lib_check A iso att).
  Notation cfit := (cfit A iso att).
  Notation cluster_batches := (cluster_batches A iso att).
  Notation new_class := (new_class A).

  Definition look (ts : list (A * nat)) (y : A) : option nat :=
    option_map snd (find (fun t => same (fst t) y) ts).

  Lemma lib_check_look x ts :
    lib_check x ts =
    match look ts x with Some k => (k, ts) | None => (new_class ts, ts ++ [(x, new_class ts)]) end.
  Proof. unfold C14_Model.lib_check, look. destruct (find _ ts); reflexivity. Qed.

  Lemma look_snoc ts x c y :
    look (ts ++ [(x, c)]) y =
    match look ts y with Some k => Some k | None => if same x y then Some c else None end.
  Proof.
    unfold look. induction ts as [|t ts IH]; simpl.
    - destruct (same x y); reflexivity.
    - destruct (same (fst t) y); [reflexivity|exact IH].
  Qed.

  Lemma new_class_cons t ts : new_class (t :: ts) = Nat.max (S (snd t)) (new_class ts).
  Proof. reflexivity. Qed.

  Lemma new_class_app ts us : new_class (ts ++ us) = Nat.max (new_class ts) (new_class us).
  Proof.
    induction ts as [|t ts IH]; [reflexivity|].
    rewrite <- app_comm_cons, !new_class_cons, IH. apply Nat.max_assoc.
  Qed.

  Lemma new_class_snoc ts x : new_class (ts ++ [(x, new_class ts)]) = S (new_class ts).
  Proof.
    rewrite new_class_app, new_class_cons. change (new_class []) with 0.
    rewrite Nat.max_0_r. apply Nat.max_r, Nat.le_succ_diag_r.
  Qed.

  (** The state of the one-shot loop (assignment of the later items, number of classes) is a function of the
      template list of the incremental loop: marking with a new representative = appending it as a template. *)
  Lemma mark_look ts x c items : mark x c items (map (look ts) items) = map (look (ts ++ [(x, c)])) items.
  Proof.
    induction items as [|y items IH]; simpl; [reflexivity|].
    rewrite look_snoc, IH. destruct (look ts y); reflexivity.
  Qed.

  Lemma oneshot_aux_cluster items : forall ts,
    oneshot_aux items (map (look ts) items) (new_class ts) = fst (cluster items ts).
  Proof.
    induction items as [|x items IH]; intros ts; simpl; [reflexivity|].
    rewrite lib_check_look. destruct (look ts x) as [k|].
    - rewrite IH. destruct (cluster items ts). reflexivity.
    - rewrite mark_look, <- (new_class_snoc ts x), IH.
      destruct (cluster items (ts ++ [(x, new_class ts)])). reflexivity.
  Qed.

  (** the two algorithms number the classes identically *)
  Theorem oneshot_eq_incremental items : oneshot items = fst (cluster items []).
  Proof. exact (oneshot_aux_cluster items []). Qed.

  Lemma cluster_app a : forall b ts,
    cluster (a ++ b) ts =
    let '(c1, t1) := cluster a ts in let '(c2, t2) := cluster b t1 in (c1 ++ c2, t2).
  Proof.
    induction a as [|x a IH]; intros b ts; simpl.
    - destruct (cluster b ts); reflexivity.
    - destruct (lib_check x ts) as [c ts1]. rewrite IH.
      destruct (cluster a ts1) as [c1 t1]. destruct (cluster b t1) as [c2 t2]. reflexivity.
  Qed.

  Lemma cluster_batches_concat bs : forall ts, cluster_batches bs ts = cluster (concat bs) ts.
  Proof.
    induction bs as [|b bs IH]; intros ts; simpl; auto.
    rewrite cluster_app. destruct (cluster b ts) as [c1 t1]. rewrite IH. reflexivity.
  Qed.

  Lemma concat_chunks_fuel bs : (1 <= bs) -> forall fuel l, length l <= fuel -> concat (chunks_fuel A fuel bs l) = l.
  Proof.
    intro Hbs. induction fuel as [|f IH]; intros l Hl; simpl.
    - destruct l; [reflexivity|simpl in Hl; lia].
    - destruct l as [|x l']; [reflexivity|]. simpl concat.
      rewrite IH.
      + apply firstn_skipn.
      + rewrite skipn_length. cbn [length] in *. lia.
  Qed.

  Lemma concat_chunks bs l : 1 <= bs -> concat (chunks A bs l) = l.
  Proof. intro H. apply concat_chunks_fuel; auto. Qed.

  (** BatchCluster.fit is the incremental loop over all items, except that a single batch without templates goes
      through the one-shot algorithm. *)
  Lemma cfit_cases items ts bs :
    cfit items ts bs = cluster items ts \/
    ts = [] /\ cfit items ts bs = (oneshot items, first_reps A items (oneshot items) []).
  Proof.
    unfold C14_Model.cfit.
    set (batches := if bs =? 0 then [items] else chunks A bs items).
    assert (Hc : concat batches = items).
    { unfold batches. destruct (bs =? 0) eqn:E; [apply app_nil_r|].
      apply Nat.eqb_neq in E. apply concat_chunks, Nat.neq_0_lt_0, E. }
    clearbody batches. destruct batches as [|b [|b2 rest]].
    - left. subst items. reflexivity.
    - simpl in Hc. rewrite app_nil_r in Hc. subst b. destruct ts; [right|left]; auto.
    - left. rewrite cluster_batches_concat, Hc. reflexivity.
  Qed.

  (** BatchCluster.fit without templates: every batch size (0 = None) yields the one-shot classes. *)
  Theorem cfit_oneshot items bs : fst (cfit items [] bs) = oneshot items.
  Proof.
    destruct (cfit_cases items [] bs) as [E|[_ E]]; rewrite E; [|reflexivity].
    symmetry. apply oneshot_eq_incremental.
  Qed.

  (** With templates from earlier batches: the batch size is irrelevant altogether (classes AND templates). *)
  Theorem cfit_templates items ts bs : ts <> [] -> cfit items ts bs = cluster items ts.
  Proof. intro Hts. destruct (cfit_cases items ts bs) as [E|[E _]]; [exact E|contradiction]. Qed.
End ClusterProof.

Definition nvc_items : list (N * N) := [(1, 0); (2, 0); (1, 0); (3, 1); (2, 0); (1, 0); (3, 1)]%N.
Definition nvc_iso (x y : N * N) : bool := (fst x =? fst y)%N.
Definition nvc_att (x : N * N) : N := snd x.

Example cluster_batches_nonvacuous :
  oneshot _ nvc_iso nvc_att nvc_items = [0; 1; 0; 2; 1; 0; 2]
  /\ map (fun bs => fst (cfit _ nvc_iso nvc_att nvc_items [] bs)) [0; 1; 2; 3; 7; 9]
     = repeat [0; 1; 0; 2; 1; 0; 2] 6
  /\ chunks _ 3 nvc_items = [[(1, 0); (2, 0); (1, 0)]; [(3, 1); (2, 0); (1, 0)]; [(3, 1)]]%N.
Proof. vm_compute. repeat split; reflexivity. Qed.
