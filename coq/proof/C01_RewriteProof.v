(** C01 — the quantifier of the property inside the model: "every SMILES re-rooting / fragment reordering / reversal".
    * extensionality: construct and decompose depend only on the labels and the bond map of their arguments (not on the
      order in which networkx lists nodes and edges);
    * re-rooting / fragment reordering = the same atoms in another index order, every bond between the renumbered ends in
      either direction and in any order: the molecule graph, the ITS and the decomposition are the same maps;
    * reversal: the ITS of the reversed reaction is the ITS with both halves of typesGH swapped, every order pair swapped
      and standard_order negated. *)
From Coq Require Import List NArith ZArith Bool Lia Arith Permutation.
From SK Require Import lib.LGraph lib.C01_GraphLemmas model.C01_Model model.C02_Model model.C01_Opts model.C01_String model.C01_Rewrite
  proof.C01_OptsProof proof.C01_Proof proof.C01_StringProof proof.C01_StringPipe proof.C01_RewriteCheck.
Import ListNotations.
Local Open Scope Z_scope.

(** * extensionality *)
Lemma geq_node_ids {A B} (g g' : lgraph A B) n : (forall k, label g' k = label g k) -> In n (node_ids g') <-> In n (node_ids g).
Proof.
  intros E. split; intros I; apply node_label_some in I; destruct I as (a & L); [rewrite E in L|rewrite <- E in L]; eapply label_some_node; eauto.
Qed.

Lemma geq_length {A B} (g g' : lgraph A B) : wf g -> wf g' -> (forall k, label g' k = label g k) ->
  length (gnodes g') = length (gnodes g).
Proof.
  intros W W' E. rewrite <- (map_length fst (gnodes g')), <- (map_length fst (gnodes g)).
  apply Permutation_length. apply NoDup_Permutation; [apply W'|apply W|]. intros n. apply (geq_node_ids g g' n E).
Qed.

Lemma order_in_ext (G G' : mgraph) u v : adj G' u v = adj G u v -> order_in G' u v = order_in G u v.
Proof. unfold order_in. intros ->. reflexivity. Qed.

Lemma side_tuple_o_ext o (G G' : mgraph) n : label G' n = label G n -> side_tuple_o o G' n = side_tuple_o o G n.
Proof. unfold side_tuple_o. intros ->. reflexivity. Qed.

Section GenExt.
Variable A : Type.
Variables mk mk' : N -> Z -> A.
Variable o : copts.
Hypothesis Emk : forall n m, mk' n m = mk n m.
Variables G H G' H' : mgraph.
Hypothesis WG : wf G.
Hypothesis WH : wf H.
Hypothesis WG' : wf G'.
Hypothesis WH' : wf H'.
Hypothesis EG : geq G' G.
Hypothesis EH : geq H' H.

Lemma gen_ext : geq (its_construct_gen mk' o G' H') (its_construct_gen mk o G H).
Proof.
  destruct EG as [LG AG]. destruct EH as [LH AH].
  assert (base_is_G_o o G' H' = base_is_G_o o G H) as EB.
  { unfold base_is_G_o. rewrite (geq_length G G' WG WG' LG), (geq_length H H' WH WH' LH). reflexivity. }
  split.
  - intros n. rewrite !gen_label. unfold base_o, other_o. rewrite EB.
    destruct (base_is_G_o o G H); rewrite ?LG, ?LH; destruct (label G n), (label H n); rewrite ?Emk; reflexivity.
  - intros u v. rewrite !gen_adj. rewrite AG, AH, (order_in_ext G G' u v (AG u v)), (order_in_ext H H' u v (AH u v)). reflexivity.
Qed.
End GenExt.

Theorem construct_ext (G H G' H' : mgraph) : wf G -> wf H -> wf G' -> wf H' -> geq G' G -> geq H' H ->
  geq (its_construct G' H') (its_construct G H).
Proof.
  intros WG WH WG' WH' EG EH. apply (gen_ext inode (its_node G H) (its_node G' H') default_opts); try assumption.
  intros n m. unfold its_node, side_tuple. rewrite (proj1 EG n), (proj1 EH n). reflexivity.
Qed.

Theorem decompose_ext (I I' : its) : wf I -> wf I' -> geq I' I ->
  geq (fst (its_decompose I')) (fst (its_decompose I)) /\ geq (snd (its_decompose I')) (snd (its_decompose I)).
Proof.
  intros W W' [L A]. unfold its_decompose. cbn [fst snd].
  split; (split; [intros n; rewrite !dec_label, L; reflexivity|
                   intros u v; rewrite !dec_adj by (apply wf_consistent; assumption); rewrite A; reflexivity]).
Qed.

(** * re-rooting / fragment reordering of one side *)
Lemma NoDup_map_inj_in {X Y} (f : X -> Y) (l : list X) :
  (forall x y, In x l -> In y l -> f x = f y -> x = y) -> NoDup l -> NoDup (map f l).
Proof.
  induction l as [|a l IH]; intros Inj ND; [constructor|]. inversion ND as [|? ? Na ND']; subst. cbn. constructor.
  - intros I. apply in_map_iff in I. destruct I as (b & E & Ib). assert (b = a) by (apply Inj; [right; exact Ib|left; reflexivity|exact E]). subst. contradiction.
  - apply IH; [|exact ND']. intros x y Hx Hy. apply Inj; right; assumption.
Qed.

(** the renumbering reaches every atom of m' *)
Lemma rewritten_onto s m m' : rewritten s m m' ->
  forall i' a, nth_error (rm_atoms m') i' = Some a -> exists i, (i < length (rm_atoms m))%nat /\ s i = i'.
Proof.
  intros (EL & Inj & At & _) i' a E.
  (* pigeonhole on the images of 0..n-1 *)
  set (n := length (rm_atoms m)) in *.
  assert (forall i, (i < n)%nat -> (s i < n)%nat) as Rg.
  { intros i Hi. destruct (nth_error (rm_atoms m) i) as [x|] eqn:Ex; [|apply nth_error_None in Ex; fold n in Ex; lia].
    apply At in Ex. assert (nth_error (rm_atoms m') (s i) <> None) as K by congruence. apply nth_error_Some in K. lia. }
  assert (i' < n)%nat as Hi' by (assert (nth_error (rm_atoms m') i' <> None) as K by congruence; apply nth_error_Some in K; lia).
  assert (NoDup (map s (seq 0 n))) as ND.
  { apply NoDup_map_inj_in; [|apply seq_NoDup]. intros x y Hx Hy. apply in_seq in Hx, Hy. apply Inj; lia. }
  assert (incl (map s (seq 0 n)) (seq 0 n)) as Inc.
  { intros y Iy. apply in_map_iff in Iy. destruct Iy as (x & <- & Ix). apply in_seq in Ix. apply in_seq. specialize (Rg x). lia. }
  assert (incl (seq 0 n) (map s (seq 0 n))) as Inc'.
  { apply NoDup_length_incl; [exact ND| |exact Inc]. rewrite map_length. lia. }
  assert (In i' (map s (seq 0 n))) as Ii by (apply Inc'; apply in_seq; lia).
  apply in_map_iff in Ii. destruct Ii as (i & <- & Ix). apply in_seq in Ix. exists i. split; [lia|reflexivity].
Qed.

Lemma rewritten_atoms s m m' : rewritten s m m' -> forall a, In a (rm_atoms m') <-> In a (rm_atoms m).
Proof.
  intros R a. pose proof R as (EL & Inj & At & _). split; intros I; apply In_nth_error in I; destruct I as (i & E).
  - destruct (rewritten_onto s m m' R i a E) as (j & Hj & <-).
    destruct (nth_error (rm_atoms m) j) as [x|] eqn:Ex; [|apply nth_error_None in Ex; lia].
    pose proof (At j x Ex) as K. rewrite E in K. inversion K; subst. eapply nth_error_In; eauto.
  - eapply nth_error_In. apply (At i a E).
Qed.

Lemma rewritten_ix s m m' : rewritten s m m' -> forall i, (i < length (rm_atoms m))%nat ->
  lookup_idx (s i) (mapped_ix m') = lookup_idx i (mapped_ix m).
Proof.
  intros (EL & Inj & At & _) i Hi. rewrite !mapped_ix_spec.
  destruct (nth_error (rm_atoms m) i) as [a|] eqn:E; [|apply nth_error_None in E; lia]. rewrite (At i a E). reflexivity.
Qed.

(** the two molecule graphs are the same maps *)
Theorem rewritten_graph s m m' : rewritten s m m' -> rmol_ok m -> rmol_ok m' -> geq (graph_of m') (graph_of m).
Proof.
  intros R [Nm Sm] [Nm' Sm']. pose proof R as (EL & Inj & At & Bf & Bb & Bd). split.
  - intros n. apply option_ext. intros g. unfold label, graph_of. cbn [gnodes]. split; intros L.
    + apply assoc_in in L. apply assoc_nodup_in; [exact Nm|]. apply mapped_nodes_in in L. apply mapped_nodes_in.
      destruct L as (x & Ix & K). exists x. split; [apply (rewritten_atoms s m m' R); exact Ix|exact K].
    + apply assoc_in in L. apply assoc_nodup_in; [exact Nm'|]. apply mapped_nodes_in in L. apply mapped_nodes_in.
      destruct L as (x & Ix & K). exists x. split; [apply (rewritten_atoms s m m' R); exact Ix|exact K].
  - intros u v. apply option_ext. intros o. unfold adj, graph_of. cbn [gedges].
    rewrite (find_edge_iff (simple_consistent Sm')), (find_edge_iff (simple_consistent Sm)).
    assert (forall mm a b, In (a, b, o) (mapped_bonds mm) <->
              exists i j, In (i, j, o) (rm_bonds mm) /\ lookup_idx i (mapped_ix mm) = Some a /\ lookup_idx j (mapped_ix mm) = Some b) as MB.
    { intros mm a b. unfold mapped_bonds. rewrite in_flat_map. split.
      - intros ([[i j] x] & Ib & K). cbn [fst snd] in K.
        destruct (lookup_idx i (mapped_ix mm)) as [a'|] eqn:Ei; [|destruct K].
        destruct (lookup_idx j (mapped_ix mm)) as [b'|] eqn:Ej; [|destruct K]. destruct K as [K|[]]. inversion K; subst. eauto.
      - intros (i & j & Ib & Ei & Ej). exists (i, j, o). split; [exact Ib|]. cbn [fst snd]. rewrite Ei, Ej. left. reflexivity. }
    rewrite !MB. split.
    + intros [(i' & j' & Ib & Ei & Ej)|(i' & j' & Ib & Ei & Ej)];
        destruct (Bb i' j' o Ib) as (i & j & Io & -> & ->);
        assert ((i < length (rm_atoms m))%nat /\ (j < length (rm_atoms m))%nat) as [Hi Hj]
          by (destruct Io as [Io|Io]; apply Bd in Io; tauto);
        rewrite (rewritten_ix s m m' R i Hi) in Ei; rewrite (rewritten_ix s m m' R j Hj) in Ej.
      * destruct Io as [Io|Io]; [left; exists i, j|right; exists j, i]; (split; [exact Io|split; assumption]).
      * destruct Io as [Io|Io]; [right; exists i, j|left; exists j, i]; (split; [exact Io|split; assumption]).
    + intros [(i & j & Ib & Ei & Ej)|(i & j & Ib & Ei & Ej)];
        destruct (Bd i j o Ib) as [Hi Hj];
        rewrite <- (rewritten_ix s m m' R i Hi) in Ei; rewrite <- (rewritten_ix s m m' R j Hj) in Ej.
      * destruct (Bf i j o Ib) as [K|K]; [left; exists (s i), (s j)|right; exists (s j), (s i)]; (split; [exact K|split; assumption]).
      * destruct (Bf i j o Ib) as [K|K]; [right; exists (s i), (s j)|left; exists (s j), (s i)]; (split; [exact K|split; assumption]).
Qed.

(** ... hence the ITS of the rewritten reaction and its decomposition are the same maps *)
Theorem rewritten_its sr sp mr mr' mp mp' :
  rewritten sr mr mr' -> rewritten sp mp mp' -> rmol_ok mr -> rmol_ok mr' -> rmol_ok mp -> rmol_ok mp' ->
  wf (graph_of mr) -> wf (graph_of mp) -> wf (graph_of mr') -> wf (graph_of mp') ->
  let I := its_construct (graph_of mr) (graph_of mp) in
  let I' := its_construct (graph_of mr') (graph_of mp') in
  rsmi_to_its_m mr' mp' = Some I' /\ rsmi_to_its_m mr mp = Some I /\
  geq I' I /\
  geq (fst (its_decompose I')) (fst (its_decompose I)) /\ geq (snd (its_decompose I')) (snd (its_decompose I)).
Proof.
  intros Rr Rp Or Or' Op Op' Wr Wp Wr' Wp' I I'.
  assert (geq I' I) as GI.
  { apply construct_ext; try assumption; [apply (rewritten_graph sr)|apply (rewritten_graph sp)]; assumption. }
  split; [|split; [|split; [exact GI|]]].
  - apply rsmi_to_its_m_closed; assumption.
  - apply rsmi_to_its_m_closed; assumption.
  - apply decompose_ext; [apply its_wf; assumption|apply its_wf; assumption|exact GI].
Qed.

(** * reversal *)
Theorem reverse_its (G H : mgraph) : wf G -> wf H -> same_nodes G H -> amap_id G -> amap_id H ->
  (forall n, label (its_construct H G) n = option_map swap_inode (label (its_construct G H) n)) /\
  (forall u v, adj (its_construct H G) u v = option_map swap_iedge (adj (its_construct G H) u v)) /\
  geq (fst (its_decompose (its_construct H G))) (snd (its_decompose (its_construct G H))) /\
  geq (snd (its_decompose (its_construct H G))) (fst (its_decompose (its_construct G H))).
Proof.
  intros WG WH S AG AH.
  assert (forall n, label (its_construct H G) n = option_map swap_inode (label (its_construct G H) n)) as EL.
  { intros n. rewrite !its_label. unfold its_base, its_other.
    assert (forall m, swap_inode (its_node G H n m) = its_node H G n m) as SW by (intros m; reflexivity).
    assert (label G n = None <-> label H n = None) as NN.
    { split; intros E; [apply (same_nodes_label_none G H n S E)|].
      apply (same_nodes_label_none H G n); [intros k; symmetry; apply S|exact E]. }
    destruct (label G n) as [a|] eqn:LG, (label H n) as [b|] eqn:LH;
      try (destruct NN as [N1 N2]; try (specialize (N1 eq_refl); discriminate); try (specialize (N2 eq_refl); discriminate)).
    - destruct (base_is_G H G), (base_is_G G H); cbn [option_map]; rewrite ?LG, ?LH; cbn [option_map];
        rewrite <- SW, ?(AG n a LG), ?(AH n b LH); reflexivity.
    - destruct (base_is_G H G), (base_is_G G H); cbn [option_map]; rewrite ?LG, ?LH; reflexivity. }
  assert (forall u v, adj (its_construct H G) u v = option_map swap_iedge (adj (its_construct G H) u v)) as EA.
  { intros u v. rewrite !its_adj by assumption. unfold mk_iedge, swap_iedge.
    destruct (adj H u v), (adj G u v); cbn; try reflexivity; f_equal; f_equal; lia. }
  split; [exact EL|]. split; [exact EA|].
  assert (consistent (gedges (its_construct H G)) /\ consistent (gedges (its_construct G H))) as [C1 C2]
    by (split; apply wf_consistent; apply its_wf; assumption).
  unfold its_decompose. cbn [fst snd]. split; split.
  - intros n. rewrite !dec_label, EL. destruct (label (its_construct G H) n); reflexivity.
  - intros u v. rewrite !dec_adj by assumption. rewrite EA. destruct (adj (its_construct G H) u v); reflexivity.
  - intros n. rewrite !dec_label, EL. destruct (label (its_construct G H) n); reflexivity.
  - intros u v. rewrite !dec_adj by assumption. rewrite EA. destruct (adj (its_construct G H) u v); reflexivity.
Qed.

(** * non-vacuity *)
(** ex_mp of C01_StringPipe ([CH3:1][OH:3].[Br-:2]) re-rooted and with its fragments reordered: [Br-:2].[OH:3][CH3:1] *)
Definition ex_mp_rw : rmol :=
  RM [RA 17013%N false 0 (-1) 2%N []; RA 82%N false 1 0 3%N [70%N]; RA 70%N false 3 0 1%N [82%N]]
     [(1%nat, 2%nat, 2)].
Definition ex_s (i : nat) : nat := match i with 0 => 2 | 1 => 1 | 2 => 0 | n => n end%nat.

Example C01_rewritten_nonvacuous :
  rewritten ex_s ex_mp ex_mp_rw /\ rmol_ok ex_mp /\ rmol_ok ex_mp_rw /\
  gnodes (graph_of ex_mp_rw) <> gnodes (graph_of ex_mp) /\ gedges (graph_of ex_mp_rw) <> gedges (graph_of ex_mp) /\
  geq (graph_of ex_mp_rw) (graph_of ex_mp).
Proof.
  assert (rewritten ex_s ex_mp ex_mp_rw) as R.
  { apply (rewritten_ext (s_of [2; 1; 0]%nat)); [|apply rewrittenb_sound; vm_compute; reflexivity].
    intros i Hi. cbn in Hi. destruct i as [|[|[|i]]]; try reflexivity. lia. }
  pose proof ex_mp_ok as O1. assert (rmol_ok ex_mp_rw) as O2 by (split; [apply nodupNb_spec|apply simpleb_spec]; reflexivity).
  split; [exact R|]. split; [exact O1|]. split; [exact O2|]. split; [discriminate|]. split; [discriminate|].
  apply (rewritten_graph ex_s); assumption.
Qed.

Example C01_reverse_nonvacuous :
  wf ex_G /\ wf ex_H /\ same_nodes ex_G ex_H /\ amap_id ex_G /\ amap_id ex_H /\
  adj (its_construct ex_G ex_H) 1%N 2%N = Some (IE 2 0 2) /\ adj (its_construct ex_H ex_G) 1%N 2%N = Some (IE 0 2 (-2)).
Proof.
  split; [exact ex_G_wf|]. split; [exact ex_H_wf|]. split; [exact ex_same|].
  split; [|split; [|split; reflexivity]]; intros n a L; apply assoc_in in L; cbn in L;
    repeat (destruct L as [E|L]; [inversion E; reflexivity|]); destruct L.
Qed.
