(** C16 — species graph, continued: the species of the rebuilt network and its molecule labels. *)
From stdpp Require Import gmap strings sets pretty sorting.
From SK Require Import lib.Tok model.C15_Model proof.C15_Proof model.C16_Model proof.C16_Defs proof.C16_Common proof.C16_Sg
  proof.C16_BipB.
Local Open Scope string_scope.
Local Open Scope list_scope.

Lemma species_graph_roundtrip_full (pick : gset string → string) (default_rule : string) (include_mol mol_attr : bool) (H : net) :
  two_sided H → occurring H ⊆ species H →
  (species_graph_to_hypergraph pick default_rule mol_attr (hypergraph_to_species_graph include_mol H)).2 = None ∧
  stoich_of <$> edges (species_graph_to_hypergraph pick default_rule mol_attr (hypergraph_to_species_graph include_mol H)).1
    = stoich_of <$> edges H ∧
  species (species_graph_to_hypergraph pick default_rule mol_attr (hypergraph_to_species_graph include_mol H)).1 = occurring H ∧
  mol (species_graph_to_hypergraph pick default_rule mol_attr (hypergraph_to_species_graph include_mol H)).1
    = if include_mol && mol_attr then filter (λ p, p.1 ∈ occurring H) (mol H) else ∅.
Proof.
  intros H2 Hocc. destruct (species_graph_roundtrip pick default_rule include_mol mol_attr H H2) as [Herr Hst].
  split; [done|]. split; [done|]. clear Herr Hst.
  destruct (export_inv include_mol H) as [HA HN]. pose proof (export_NodeInv include_mol H) as [Hna Hnb].
  set (G := hypergraph_to_species_graph include_mol H) in *.
  destruct (species_graph_import pick default_rule mol_attr H G H2 (AInv_VAInv _ _ HA) HN) as (s' & -> & _ & Hsp & Hm).
  cbn [fst]. destruct mol_attr; [|by rewrite andb_false_r].
  rewrite andb_true_r.
  set (fmol := λ xn : string * snode, (λ m, (default xn.1 (sn_label xn.2), m)) <$> sn_mol xn.2).
  assert (foldl sg_mol_step s' (map_to_list (g_nodes G)) = foldl (mol_step fmol) s' (map_to_list (g_nodes G))) as ->.
  { apply foldl_ext_in. intros acc xn _. unfold sg_mol_step, mol_step, fmol. destruct (sn_mol xn.2); done. }
  assert (∀ x nd, (x, nd) ∈ map_to_list (g_nodes G) →
            fmol (x, nd) = if decide (x ∈ species H) then (λ m, (x, m)) <$> (if include_mol then mol H !! x else None) else None) as Hfm.
  { intros x nd Hin%elem_of_map_to_list. destruct (decide (x ∈ species H)) as [Hx|Hx].
    - rewrite (Hna x Hx) in Hin. injection Hin as <-. done.
    - destruct (Hnb x nd Hin) as [?|Hq]; [done|by subst nd]. }
  destruct (mol_fold_labels fmol include_mol H (map_to_list (g_nodes G)) s' Hm Hsp) as (_ & Hs' & Hmol).
  - intros [x nd] k m Hin Hfx. rewrite (Hfm x nd Hin) in Hfx. destruct (decide (x ∈ species H)); [|done].
    destruct include_mol; [|done]. destruct (mol H !! x) eqn:E; [|done]. cbn in Hfx. by injection Hfx as -> ->.
  - intros k m -> Hk%Hocc Hv. exists (k, sg_node true H k).
    assert ((k, sg_node true H k) ∈ map_to_list (g_nodes G)) as Hin by (by apply elem_of_map_to_list, Hna).
    split; [done|]. by rewrite (Hfm k _ Hin), decide_True, Hv by done.
  - by rewrite Hs', Hmol.
Qed.
