(** C15 — what the three __repr__ methods print (model/C15_Repr.v). *)
From stdpp Require Import gmap strings sets sorting.
From Coq Require Import Ascii.
From SK Require Import model.C15_Model model.C15_Ext proof.C15_Proof model.C16_Model proof.C16_Defs proof.C16_Chars
                       model.C15_Repr.
Local Open Scope string_scope.
Local Open Scope list_scope.

(** * 1. repr(RXNSide) is read back by RXNSide.from_str (the parser theorem of C16) *)
Lemma repr_side_parses (sd : side) : side_labels_ok sd = true → from_str (repr_side sd) = Some sd.
Proof.
  intros Hok. unfold from_str, repr_side.
  pose proof (from_chars_side sd [] [] Hok (Forall_nil_2 _) (Forall_nil_2 _)) as Hp.
  by rewrite app_nil_l, app_nil_r in Hp.
Qed.

Lemma filter_none {A} (P : A → Prop) `{∀ x, Decision (P x)} (l : list A) : (∀ z, z ∈ l → ¬ P z) → filter P l = [].
Proof.
  induction l as [|y t IH]; intros Hn; [done|]. rewrite filter_cons, decide_False by (apply Hn; by left).
  apply IH. intros z Hz. apply Hn. by right.
Qed.

(** * 2. a stable insertion sort *)
Section stable.
  Context {A K : Type} `{EqDecision K} (key : A → K) (kle : K → K → bool).
  Context (kle_total : ∀ a b, kle a b = true ∨ kle b a = true).
  Context (kle_trans : ∀ a b c, kle a b = true → kle b c = true → kle a c = true).
  Let le (x y : A) : bool := kle (key x) (key y).
  Let R (x y : A) : Prop := le x y = true.

  Lemma insert_stable_perm x l : insert_stable le x l ≡ₚ x :: l.
  Proof.
    induction l as [|y t IH]; [done|]. cbn. destruct (le y x); [|done].
    rewrite IH. apply perm_swap.
  Qed.
  Lemma sort_stable_perm_acc l : ∀ acc, foldl (λ acc x, insert_stable le x acc) acc l ≡ₚ acc ++ l.
  Proof.
    induction l as [|x l IH]; intros acc; cbn; [by rewrite app_nil_r|].
    rewrite IH, insert_stable_perm. by rewrite <-Permutation_middle.
  Qed.
  Lemma sort_stable_perm l : sort_stable le l ≡ₚ l.
  Proof. unfold sort_stable. by rewrite sort_stable_perm_acc. Qed.

  Lemma insert_stable_sorted x l : StronglySorted R l → StronglySorted R (insert_stable le x l).
  Proof.
    induction 1 as [|y t Hs IH Hall]; cbn; [repeat constructor|].
    destruct (le y x) eqn:E.
    - constructor; [done|]. apply Forall_forall. intros z Hz.
      rewrite insert_stable_perm in Hz. apply elem_of_cons in Hz as [->|Hz]; [done|].
      by apply (proj1 (Forall_forall _ _) Hall).
    - assert (R x y) as Hxy by (destruct (kle_total (key x) (key y)) as [?|Hq]; [done|unfold le in E; congruence]).
      constructor; [by constructor|]. constructor; [done|].
      apply Forall_forall. intros z Hz. unfold R, le. eapply kle_trans; [exact Hxy|].
      by apply (proj1 (Forall_forall _ _) Hall).
  Qed.
  Lemma sort_stable_sorted_acc l : ∀ acc, StronglySorted R acc → StronglySorted R (foldl (λ acc x, insert_stable le x acc) acc l).
  Proof. induction l as [|x l IH]; intros acc Hs; cbn; [done|]. by apply IH, insert_stable_sorted. Qed.
  Lemma sort_stable_sorted l : StronglySorted R (sort_stable le l).
  Proof. apply sort_stable_sorted_acc. constructor. Qed.

  (** stability: elements with the same key keep their relative order *)
  Context (kle_antisym : ∀ a b, kle a b = true → kle b a = true → a = b).
  Lemma kle_refl a : kle a a = true.
  Proof. by destruct (kle_total a a). Qed.

  Lemma insert_stable_class x l k : StronglySorted R l →
    filter (λ z, key z = k) (insert_stable le x l) = filter (λ z, key z = k) l ++ (if decide (key x = k) then [x] else []).
  Proof.
    induction 1 as [|y t Hs IH Hall]; cbn [insert_stable].
    - rewrite filter_cons, !filter_nil. by destruct (decide (key x = k)).
    - destruct (le y x) eqn:E.
      + rewrite !filter_cons, IH. by destruct (decide (key y = k)).
      + assert (∀ z, z ∈ y :: t → key z ≠ key x) as Hne.
        { intros z Hz Heq. assert (R y z) as Hyz.
          { apply elem_of_cons in Hz as [->|Hz]; [apply kle_refl|]. by apply (proj1 (Forall_forall _ _) Hall). }
          unfold R, le in *. rewrite Heq in Hyz. congruence. }
        rewrite (filter_cons _ x). destruct (decide (key x = k)) as [<-|Hk].
        * assert (filter (λ z, key z = key x) (y :: t) = []) as ->; [|done].
          apply filter_none. intros z Hz. by apply Hne.
        * by rewrite app_nil_r.
  Qed.
  Lemma sort_stable_class_acc l k : ∀ acc, StronglySorted R acc →
    filter (λ z, key z = k) (foldl (λ acc x, insert_stable le x acc) acc l) = filter (λ z, key z = k) (acc ++ l).
  Proof.
    induction l as [|x l IH]; intros acc Hs; cbn; [by rewrite app_nil_r|].
    rewrite IH by (by apply insert_stable_sorted). rewrite !filter_app, insert_stable_class by done.
    rewrite filter_cons. rewrite <-(assoc_L (++)). by destruct (decide (key x = k)).
  Qed.
  Lemma sort_stable_class l k : filter (λ z, key z = k) (sort_stable le l) = filter (λ z, key z = k) l.
  Proof. unfold sort_stable. rewrite sort_stable_class_acc by constructor. done. Qed.
End stable.

(** * 3. the order of the reaction lines: (id without digits, number made of the digits) *)
Lemma compare_refl s : String.compare s s = Eq.
Proof. induction s as [|a s IH]; [done|]. cbn. unfold Ascii.compare. by rewrite N.compare_refl. Qed.
Lemma compare_Eq_iff a b : String.compare a b = Eq ↔ a = b.
Proof. split; [apply String.compare_eq_iff|intros ->; apply compare_refl]. Qed.
Lemma compare_Lt_Gt a b : String.compare a b = Lt ↔ String.compare b a = Gt.
Proof. rewrite (String.compare_antisym b a). destruct (String.compare a b); cbn; split; congruence. Qed.

Lemma compare_trans_Lt a : ∀ b c, String.compare a b = Lt → String.compare b c = Lt → String.compare a c = Lt.
Proof.
  induction a as [|ca a IH]; intros [|cb b] [|cc c]; cbn; try done.
  unfold Ascii.compare.
  destruct (N.compare_spec (N_of_ascii ca) (N_of_ascii cb)) as [E1|E1|E1],
           (N.compare_spec (N_of_ascii cb) (N_of_ascii cc)) as [E2|E2|E2],
           (N.compare_spec (N_of_ascii ca) (N_of_ascii cc)) as [E3|E3|E3];
    try done; try lia.
  apply IH.
Qed.

Lemma ekey_le_total a b : ekey_le a b = true ∨ ekey_le b a = true.
Proof.
  unfold ekey_le. destruct (String.compare a.1 b.1) eqn:E.
  - apply compare_Eq_iff in E. rewrite E, compare_refl. destruct (N.leb_spec a.2 b.2); [by left|right]. apply N.leb_le. lia.
  - by left.
  - right. apply compare_Lt_Gt in E. by rewrite E.
Qed.
Lemma ekey_le_trans a b c : ekey_le a b = true → ekey_le b c = true → ekey_le a c = true.
Proof.
  unfold ekey_le. destruct (String.compare a.1 b.1) eqn:E1; [|
    |done]; destruct (String.compare b.1 c.1) eqn:E2; try done.
  - apply compare_Eq_iff in E1, E2. rewrite E1, E2, compare_refl. intros ?%N.leb_le ?%N.leb_le. apply N.leb_le. lia.
  - apply compare_Eq_iff in E1. by rewrite E1, E2.
  - apply compare_Eq_iff in E2. by rewrite <-E2, E1.
  - by rewrite (compare_trans_Lt _ _ _ E1 E2).
Qed.
Lemma ekey_le_antisym a b : ekey_le a b = true → ekey_le b a = true → a = b.
Proof.
  unfold ekey_le. destruct (String.compare a.1 b.1) eqn:E1.
  - apply compare_Eq_iff in E1. rewrite E1, compare_refl. intros ?%N.leb_le ?%N.leb_le.
    destruct a, b; cbn in *. f_equal; [done|lia].
  - apply compare_Lt_Gt in E1. by rewrite E1.
  - done.
Qed.

(** the reaction lines of repr(H): every stored reaction exactly once, ordered by the key, ties in insertion order *)
Lemma sorted_edges_spec (s : net) :
  sorted_edges s ≡ₚ edge_seq s ∧
  StronglySorted (λ p q, ekey_le (edge_key p.1) (edge_key q.1) = true) (sorted_edges s) ∧
  ∀ k, filter (λ p, edge_key p.1 = k) (sorted_edges s) = filter (λ p, edge_key p.1 = k) (edge_seq s).
Proof.
  unfold sorted_edges. split; [|split].
  - apply (sort_stable_perm (λ p : string * rxn, edge_key p.1) ekey_le).
  - apply (sort_stable_sorted (λ p : string * rxn, edge_key p.1) ekey_le ekey_le_total ekey_le_trans).
  - intros k. apply (sort_stable_class (λ p : string * rxn, edge_key p.1) ekey_le ekey_le_total ekey_le_trans).
Qed.

Lemma sorted_edges_stored (s : net) : Inv s →
  (∀ e rx, (e, rx) ∈ sorted_edges s ↔ edges s !! e = Some rx) ∧ NoDup (sorted_edges s).*1.
Proof.
  intros HI. destruct (sorted_edges_spec s) as (Hp & _ & _). split.
  - intros e rx. rewrite Hp, elem_of_edge_seq, (inv_order _ HI). split; [by intros [_ ?]|]. split; [eauto|done].
  - rewrite Hp. rewrite edge_seq_fst; [apply HI|]. intros ?. apply HI.
Qed.

(** the text: header, one line per reaction, the species line, the label line exactly when labels exist *)
Lemma repr_lines_shape (s : net) :
  ∃ tail, repr_lines s = "CRNHyperGraph:" :: ((λ p, "  " +:+ repr_edge p.1 p.2) <$> sorted_edges s) ++ tail ∧
          length tail = (if decide (mol s = ∅) then 1 else 2)%nat.
Proof.
  unfold repr_lines. destruct (decide (mol s = ∅)); eexists; (split; [cbn; reflexivity|]); by rewrite ?app_length.
Qed.

(** * non-vacuity: ids "r_1", "r_10", "r_2", "r1_" (same key as r_1), "x", "" and labels *)
Definition exr_ops : list op2 :=
  [ OBase (OAdd 0 [("B", 2%Z); ("A", 1%Z)] [("C", 1%Z)] "r" None);
    OBase (OAdd 0 [("C", 12%Z)] [] "r" (Some "r_10"));
    OBase (OAdd 0 [("A", 1%Z)] [("A", 1%Z); ("D", 3%Z)] "r" (Some "r_2"));
    OBase (OAdd 0 [("D", 1%Z)] [("E", 1%Z)] "q" (Some "r1_"));
    OBase (OAdd 0 [("E", 1%Z)] [("A", 2%Z)] "q" (Some "x"));
    OBase (OAssignMol 0 "A" """CCO""") ].
Definition exr_net : net := getn (nets (fold_left (λ w o, (step2 w o).1.1) exr_ops (init_world2 1 0))) 0.
Example ex_repr_nonvacuous :
  (sorted_edges exr_net).*1 = ["r_1"; "r1_"; "r_2"; "r_10"; "x"] ∧
  (edge_seq exr_net).*1 = ["r_1"; "r_10"; "r_2"; "r1_"; "x"] ∧
  edge_key "r_1" = edge_key "r1_" ∧
  repr_edge "r_1" (default (Rxn "" ∅ ∅) (edges exr_net !! "r_1")) = "r_1: A + 2B >> C  (rule=r)" ∧
  length (repr_lines exr_net) = 8%nat ∧
  side_labels_ok (r_lhs (default (Rxn "" ∅ ∅) (edges exr_net !! "r_1"))) = true ∧
  bool_decide (from_str (repr_side (r_lhs (default (Rxn "" ∅ ∅) (edges exr_net !! "r_1"))))
               = Some (r_lhs (default (Rxn "" ∅ ∅) (edges exr_net !! "r_1")))) = true.
Proof. split_and!; by vm_compute. Qed.
