(** C07 — every cheap pre-filter is a NECESSARY condition for containment (so switching it on or off cannot change a
    verdict): node count, edge count, the node-label and edge-label existence filters of subgraph_isomorphism.
    (The WL-1 histogram filter is in C07_WL.v.)  Stdlib lists. *)
From Coq Require Import List NArith Bool Arith Permutation.
From SK Require Import lib.LGraph lib.C01_GraphLemmas model.C07_Model proof.C07_Spec.
Import ListNotations.

Lemma NoDup_map_inj_in {X Y} (f : X -> Y) l : NoDup l -> (forall a b, In a l -> In b l -> f a = f b -> a = b) -> NoDup (map f l).
Proof.
  induction l as [|x l IH]; simpl; intros Hnd Hinj; [constructor|].
  inversion Hnd as [|? ? Hx Hnd']; subst. constructor.
  - intros I. apply in_map_iff in I. destruct I as (y & E & Iy). apply Hx. rewrite (Hinj x y); auto.
  - apply IH; auto.
Qed.

Lemma n_nodes_ids (g : graph) : n_nodes g = length (node_ids g).
Proof. unfold n_nodes, node_ids. rewrite map_length. reflexivity. Qed.

Lemma emb_image_nodup ind nm em H P f : NoDup (node_ids P) -> emb ind nm em H P f -> NoDup (map f (node_ids P)).
Proof. intros Hnd (_ & E2 & _). apply NoDup_map_inj_in; auto. Qed.

Lemma emb_image_incl ind nm em H P f : emb ind nm em H P f -> incl (map f (node_ids P)) (node_ids H).
Proof. intros (E1 & _) h I. apply in_map_iff in I. destruct I as (u & <- & Iu). apply E1. exact Iu. Qed.

(** C1: node count *)
Lemma emb_n_nodes ind nm em H P f : NoDup (node_ids P) -> emb ind nm em H P f -> n_nodes P <= n_nodes H.
Proof.
  intros Hnd He. rewrite !n_nodes_ids, <- (map_length f (node_ids P)).
  apply NoDup_incl_length; [eapply emb_image_nodup; eauto | eapply emb_image_incl; eauto].
Qed.

Definition same_pair (a b u v : N) : Prop := (a = u /\ b = v) \/ (a = v /\ b = u).

(** in a well-formed graph a stored edge is the one [adj] finds *)
Lemma wf_adj_stored (g : graph) a b x : gwf g -> In (a, b, x) (gedges g) ->
  LGraph.adj g a b = Some x /\ In a (node_ids g) /\ In b (node_ids g) /\ a <> b.
Proof. intros W I. split; [exact (wf_in_adj W I) | exact (wf_edge_nodes W I)]. Qed.

(** C2: edge count.  The edge of H that carries the image of a pattern edge; the map is injective. *)
Section EdgeCount.
Variables (ind : bool) (nm em : attrs -> attrs -> bool) (H P : graph) (f : N -> N).
Hypothesis WH : gwf H.
Hypothesis WP : gwf P.
Hypothesis He : emb ind nm em H P f.

Fixpoint find_entry (u v : N) (es : list (N * N * attrs)) : option (N * N * attrs) :=
  match es with
  | [] => None
  | (a, b, x) :: r => if (N.eqb a u && N.eqb b v) || (N.eqb a v && N.eqb b u) then Some (a, b, x) else find_entry u v r
  end.

Lemma find_entry_spec u v es :
  match find_entry u v es with
  | Some t => In t es /\ same_pair (fst (fst t)) (snd (fst t)) u v
  | None => find_edge u v es = None
  end.
Proof.
  induction es as [|[[a b] x] r IH]; simpl; [reflexivity|].
  destruct ((N.eqb a u && N.eqb b v) || (N.eqb a v && N.eqb b u)) eqn:T.
  - split; auto. apply match_pair_spec. exact T.
  - destruct (find_entry u v r); [destruct IH; auto | exact IH].
Qed.

Definition img (t : N * N * attrs) : N * N * attrs :=
  match find_entry (f (fst (fst t))) (f (snd (fst t))) (gedges H) with Some t' => t' | None => t end.

Lemma img_spec a b x : In (a, b, x) (gedges P) ->
  In (img (a, b, x)) (gedges H) /\ same_pair (fst (fst (img (a, b, x)))) (snd (fst (img (a, b, x)))) (f a) (f b).
Proof.
  intros I. destruct (wf_adj_stored P a b x WP I) as (A & Ia & Ib & Hne).
  destruct He as (_ & _ & E3). specialize (E3 a b Ia Ib Hne). rewrite A in E3.
  unfold img; simpl. pose proof (find_entry_spec (f a) (f b) (gedges H)) as F.
  destruct (find_entry (f a) (f b) (gedges H)) as [t'|]; [exact F|].
  unfold LGraph.adj in E3. rewrite F in E3. destruct E3.
Qed.

Lemma img_nodup es : incl es (gedges P) -> simple es -> NoDup (map img es).
Proof.
  intros Hin Hs. induction Hs as [|a b x r Hn Hs IH]; simpl; [constructor|].
  assert (Hr : incl r (gedges P)) by (intros t I; apply Hin; right; exact I).
  constructor; [|apply IH; exact Hr].
  intros I. apply in_map_iff in I. destruct I as ([[a2 b2] x2] & E & I2).
  assert (I1 : In (a, b, x) (gedges P)) by (apply Hin; left; reflexivity).
  destruct (img_spec a b x I1) as (_ & S1). destruct (img_spec a2 b2 x2 (Hr _ I2)) as (_ & S2). rewrite E in S2.
  destruct (wf_adj_stored P a b x WP I1) as (_ & Ia & Ib & _).
  destruct (wf_adj_stored P a2 b2 x2 WP (Hr _ I2)) as (_ & Ia2 & Ib2 & _).
  destruct He as (_ & E2 & _).
  apply (find_edge_not_none a b r x2); [|exact Hn].
  assert (C : (f a = f a2 /\ f b = f b2) \/ (f a = f b2 /\ f b = f a2))
    by (destruct S1 as [[<- <-]|[<- <-]], S2 as [[Q1 Q2]|[Q1 Q2]]; auto).
  destruct C as [(Q1 & Q2)|(Q1 & Q2)]; apply E2 in Q1; auto; apply E2 in Q2; auto; subst; auto.
Qed.

Lemma emb_n_edges : n_edges P <= n_edges H.
Proof.
  unfold n_edges. rewrite <- (map_length img (gedges P)). apply NoDup_incl_length.
  - apply img_nodup; [apply incl_refl | apply wf_simple; exact WP].
  - intros t I. apply in_map_iff in I. destruct I as ([[a b] x] & <- & I). apply img_spec. exact I.
Qed.
End EdgeCount.

(** C1 and C2 together: the count test of _pre_check and of use_filter passes *)
Lemma emb_counts ind nm em H P f : gwf H -> gwf P -> emb ind nm em H P f ->
  (n_nodes H <? n_nodes P) || (n_edges H <? n_edges P) = false.
Proof.
  intros WH WP He. apply orb_false_iff. split; apply Nat.ltb_ge; [eapply emb_n_nodes; eauto; apply gwf_nodup; auto | eapply emb_n_edges; eauto].
Qed.

Lemma opt_eqb_eq x y : opt_eqb x y = true <-> x = y.
Proof.
  destruct x, y; simpl; try (split; [discriminate|discriminate]); try tauto.
  rewrite N.eqb_eq. split; congruence.
Qed.

Lemma node_entry (g : graph) h : In h (node_ids g) -> In (h, nlabel g h) (gnodes g).
Proof.
  intros I. destruct (assoc_is_some h (gnodes g) I) as (v & E). unfold nlabel, label. rewrite E. apply assoc_in. exact E.
Qed.

Lemma node_label (g : graph) u a : gwf g -> In (u, a) (gnodes g) -> nlabel g u = a /\ In u (node_ids g).
Proof.
  intros W I. split.
  - unfold nlabel, label. rewrite (assoc_nodup_in u (gnodes g) a (gwf_nodup g W) I). reflexivity.
  - change u with (fst (u, a)). apply in_map. exact I.
Qed.

Theorem sub_filter_necessary ind nc ec names eattr child parent :
  gwf child -> gwf parent -> contained ind (nm_subc nc names) (em_subc ec eattr) parent child ->
  sub_filter nc ec names eattr child parent = true.
Proof.
  intros WC WPa (f & He). unfold sub_filter.
  rewrite (emb_counts _ _ _ _ _ _ WPa WC He).
  assert (F1 : forallb (fun cn => existsb (fun pn => nm_subc nc names (snd pn) (snd cn)) (gnodes parent)) (gnodes child) = true).
  { apply forallb_forall. intros [u a] I. destruct (node_label child u a WC I) as (El & Iu).
    destruct He as (E1 & _). destruct (E1 u Iu) as (Ih & Hn). apply existsb_exists.
    exists (f u, nlabel parent (f u)). split; [apply node_entry; exact Ih|]. simpl. rewrite <- El. exact Hn. }
  rewrite F1. simpl. destruct eattr as [k|]; [|reflexivity].
  apply forallb_forall. intros [[a b] x] I. destruct (wf_adj_stored child a b x WC I) as (A & Ia & Ib & Hne).
  destruct He as (_ & _ & E3). specialize (E3 a b Ia Ib Hne). rewrite A in E3.
  destruct (LGraph.adj parent (f a) (f b)) as [y|] eqn:Ay; [|destruct E3].
  apply existsb_exists. destruct (find_edge_some_in _ _ _ Ay) as [Iy|Iy]; eexists; (split; [exact Iy|auto]).
Qed.
