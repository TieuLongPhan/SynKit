(** C07 — the raw option layer of the boolean subgraph entry points (what the caller passes: parallel name / default
    lists, edge attribute None / "" / name, check_type as a string, comparators possibly None, back-end name of the facade),
    their invariance under renaming, symmetry and renaming invariance of graph_isomorphism / find_graph_isomorphism,
    the mapping returned by find_graph_isomorphism, and the intermediate values the correspondence observes.  Stdlib lists. *)
From Coq Require Import List NArith Bool Arith Permutation.
From SK Require Import lib.LGraph model.C07_Model
  proof.C07_Spec proof.C07_History proof.C07_Filters proof.C07_Main proof.C07_Relabel proof.C07_Extra.
Import ListNotations.

(** which options each entry point really uses: is_subgraph drops the comparators; SubgraphMatch compares the edge attribute ""
    like any (absent) name while graph_morphism switches edge matching off for a falsy name *)
Definition entry_opts (fn : sub_fn) (o : sub_opts) : sub_opts := match fn with FnIS => no_cmps o | _ => o end.
Definition entry_nc (fn : sub_fn) (o : sub_opts) : cmp := cmp_or_eq (o_nc (entry_opts fn o)).
Definition entry_ec (fn : sub_fn) (o : sub_opts) : cmp := cmp_or_eq (o_ec (entry_opts fn o)).
Definition entry_em (fn : sub_fn) (o : sub_opts) : option N :=
  match fn with FnGM => ea_truthy (o_eattr o) | _ => ea_sm (o_eattr o) end.
(** the calls that answer (do not raise): an edge attribute other than None for the two SubgraphMatch functions, back-end "nx" *)
Definition entry_ok (fn : sub_fn) (o : sub_opts) : Prop :=
  (fn = FnGM \/ o_eattr o <> EaNone) /\ (fn = FnIS -> o_backend o = 0%N).

Definition set_filter (o : sub_opts) (b : bool) : sub_opts :=
  SO (o_names o) (o_defaults o) (o_eattr o) b (o_ctype o) (o_nc o) (o_ec o) (o_backend o).
Definition set_ctype (o : sub_opts) (ct : N) : sub_opts :=
  SO (o_names o) (o_defaults o) (o_eattr o) (o_filter o) ct (o_nc o) (o_ec o) (o_backend o).

Lemma em_truthy_weaker ec a h p : em_subc ec (ea_sm a) h p = true -> em_subc ec (ea_truthy a) h p = true.
Proof. destruct a; simpl; auto. Qed.

Lemma contained_truthy ind nm ec a H P :
  contained ind nm (em_subc ec (ea_sm a)) H P -> contained ind nm (em_subc ec (ea_truthy a)) H P.
Proof.
  intros (f & He). exists f. revert He. apply emb_weaken; auto. intros b b'. apply em_truthy_weaker.
Qed.

Lemma res_of_iff (r1 r2 : res) b1 b2 (P1 P2 : Prop) :
  r1 = RB b1 -> r2 = RB b2 -> (b1 = true <-> P1) -> (b2 = true <-> P2) -> (P1 <-> P2) -> r1 = r2.
Proof. intros -> -> A B C. f_equal. apply bool_iff. tauto. Qed.

Section Entry.
Variable vf2b : bool -> (attrs -> attrs -> bool) -> (attrs -> attrs -> bool) -> graph -> graph -> bool.
Variable enum : (attrs -> attrs -> bool) -> (attrs -> attrs -> bool) -> graph -> graph -> list mapping.
Hypothesis VB : vf2b_contract vf2b.

Lemma entry_sm_spec o child parent : gwf child -> gwf parent -> o_eattr o <> EaNone ->
  exists b, entry_sm vf2b o child parent = RB b /\
    (b = true <-> contained (o_induced o) (nm_subc (cmp_or_eq (o_nc o)) (o_sel o)) (em_subc (cmp_or_eq (o_ec o)) (ea_sm (o_eattr o))) parent child).
Proof.
  intros WC WP Hn. unfold entry_sm.
  destruct (o_filter o && negb (sub_filter (cmp_or_eq (o_nc o)) (cmp_or_eq (o_ec o)) (o_sel o) (ea_truthy (o_eattr o)) child parent)) eqn:T.
  - exists false. split; [reflexivity|]. split; [discriminate|]. intros C. apply andb_true_iff in T. destruct T as (_ & T).
    apply contained_truthy in C.
    rewrite (sub_filter_necessary (o_induced o) _ _ _ _ child parent WC WP C) in T. discriminate.
  - destruct (o_eattr o) as [|k|k] eqn:E; [congruence| |]; eexists; (split; [reflexivity|]); apply VB; auto.
Qed.

(** (3, raw) every boolean subgraph entry point, called with options as the caller passes them, answers the definition of induced
    (check_type == "induced") resp. monomorphic (ANY other string) containment under the zipped label selection and the comparators
    it really uses — with use_filter on or off *)
Theorem entry_spec fn o child parent : gwf child -> gwf parent -> entry_ok fn o ->
  exists b, sub_entry vf2b fn o child parent = RB b /\
    (b = true <-> contained (o_induced o) (nm_subc (entry_nc fn o) (o_sel o)) (em_subc (entry_ec fn o) (entry_em fn o)) parent child).
Proof.
  intros WC WP (Hea & Hbe). destruct fn; simpl.
  - apply entry_sm_spec; auto. destruct Hea as [Hea|Hea]; [discriminate|exact Hea].
  - unfold entry_is. rewrite (Hbe eq_refl). simpl.
    apply (entry_sm_spec (no_cmps o) child parent WC WP). destruct Hea as [Hea|Hea]; [discriminate|exact Hea].
  - unfold entry_gm. eexists. split; [reflexivity|]. unfold sub_iso2. apply (sub_iso_spec vf2b VB); auto.
Qed.

(** (5, raw) use_filter on / off: the same answer, for every entry point and all option values that answer at all *)
Theorem entry_filter_transparent fn o child parent : gwf child -> gwf parent -> entry_ok fn o ->
  sub_entry vf2b fn (set_filter o true) child parent = sub_entry vf2b fn (set_filter o false) child parent.
Proof.
  intros WC WP Hok.
  destruct (entry_spec fn (set_filter o true) child parent WC WP) as (b1 & E1 & S1); [destruct fn; exact Hok|].
  destruct (entry_spec fn (set_filter o false) child parent WC WP) as (b2 & E2 & S2); [destruct fn; exact Hok|].
  rewrite E1, E2. f_equal. apply bool_iff. rewrite S1, S2. destruct fn; reflexivity.
Qed.

(** the facade: is_subgraph(backend="nx") is subgraph_isomorphism with the default comparators, whatever the other options are;
    any other back-end name raises (ImportError for the uninstalled "mod", ValueError otherwise) and never answers *)
Theorem is_subgraph_facade o pattern host :
  sub_entry vf2b FnIS o pattern host =
  if N.eqb (o_backend o) 0 then sub_entry vf2b FnSM (no_cmps o) pattern host
  else RErr (if N.eqb (o_backend o) 1 then 2 else 3)%N.
Proof. simpl. unfold entry_is. destruct (N.eqb (o_backend o) 0); [reflexivity|]. destruct (N.eqb (o_backend o) 1); reflexivity. Qed.

(** check_type: only the exact string "induced" (code 0) selects the induced test; all other spellings behave alike *)
Theorem check_type_spellings fn o ct child parent : ct <> 0%N ->
  sub_entry vf2b fn (set_ctype o ct) child parent = sub_entry vf2b fn (set_ctype o 1%N) child parent.
Proof.
  intros Hc. assert (E : N.eqb ct 0 = false) by (apply N.eqb_neq; exact Hc).
  destruct fn; simpl; unfold entry_is, entry_sm, entry_gm, o_induced; simpl; rewrite E; reflexivity.
Qed.

Lemma entry_trace_sm o child parent : o_eattr o <> EaNone ->
  (entry_trace FnSM o child parent = 0%N -> entry_sm vf2b o child parent = RB false) /\
  (entry_trace FnSM o child parent <> 0%N -> entry_trace FnSM o child parent = if o_induced o then 2%N else 4%N).
Proof.
  intros Hea. unfold entry_trace, entry_sm. simpl.
  destruct (o_filter o && negb (sub_filter _ _ _ _ child parent)); [split; [reflexivity|congruence]|].
  destruct (o_eattr o); [congruence| |]; destruct (o_induced o); split; (discriminate || reflexivity).
Qed.

(** the intermediate value compared with the implementation (was a GraphMatcher built, which method decided) determines the answer
    the way the code does: no matcher => False; otherwise the method is chosen by check_type alone *)
Theorem entry_trace_spec fn o child parent : entry_ok fn o ->
  (entry_trace fn o child parent = 0%N -> sub_entry vf2b fn o child parent = RB false) /\
  (entry_trace fn o child parent <> 0%N -> entry_trace fn o child parent = if o_induced o then 2%N else 4%N).
Proof.
  intros (Hea & Hbe). destruct fn.
  - apply entry_trace_sm. destruct Hea as [Hea|Hea]; [discriminate|exact Hea].
  - (* the facade with back-end "nx" is the first entry point on the options without comparators *)
    replace (entry_trace FnIS o child parent) with (entry_trace FnSM (no_cmps o) child parent)
      by (unfold entry_trace; rewrite (Hbe eq_refl); reflexivity).
    simpl. unfold entry_is. rewrite (Hbe eq_refl). simpl.
    apply (entry_trace_sm (no_cmps o)). destruct Hea as [Hea|Hea]; [discriminate|exact Hea].
  - unfold entry_trace. simpl. unfold entry_gm, sub_iso2.
    destruct (N.eqb (o_backend o) 0); (destruct (o_filter o && negb (sub_filter _ _ _ _ child parent)); [split; [reflexivity|congruence]|]);
      destruct (o_induced o); split; (discriminate || reflexivity).
Qed.

(** whenever an entry point answers True for check_type "induced" it answers True for every other check_type (same remaining options) *)
Theorem entry_induced_implies_mono fn o ct child parent : gwf child -> gwf parent -> entry_ok fn o -> ct <> 0%N ->
  sub_entry vf2b fn (set_ctype o 0%N) child parent = RB true -> sub_entry vf2b fn (set_ctype o ct) child parent = RB true.
Proof.
  intros WC WP Hok Hct A.
  assert (Hok0 : entry_ok fn (set_ctype o 0%N)) by (destruct fn; exact Hok).
  assert (Hok1 : entry_ok fn (set_ctype o ct)) by (destruct fn; exact Hok).
  destruct (entry_spec fn (set_ctype o 0%N) child parent WC WP Hok0) as (b0 & E0 & S0).
  destruct (entry_spec fn (set_ctype o ct) child parent WC WP Hok1) as (b1 & E1 & S1).
  rewrite E1. f_equal. apply S1. rewrite E0 in A. inversion A; subst b0.
  destruct (proj1 S0 eq_refl) as (f & He).
  assert (I1 : o_induced (set_ctype o ct) = false) by (unfold o_induced; simpl; apply N.eqb_neq; exact Hct).
  rewrite I1. exists f. destruct fn; revert He; apply emb_weaken; auto; discriminate.
Qed.

(** the boolean subgraph tests (all three entry points, raw options) do not depend on the node numbering of either graph *)
Theorem entry_relabel fn o r child parent : gwf child -> gwf parent -> entry_ok fn o ->
  (inj_on r (node_ids child) -> sub_entry vf2b fn o (grelabel r child) parent = sub_entry vf2b fn o child parent) /\
  (inj_on r (node_ids parent) -> sub_entry vf2b fn o child (grelabel r parent) = sub_entry vf2b fn o child parent).
Proof.
  intros WC WP Hok. destruct (entry_spec fn o child parent WC WP Hok) as (b & E & S). split; intros Ri.
  - destruct (entry_spec fn o (grelabel r child) parent (gwf_relabel r child WC Ri) WP Hok) as (b' & E' & S').
    apply (res_of_iff _ _ _ _ _ _ E' E S' S). apply contained_relabel_pat_iff; auto.
  - destruct (entry_spec fn o child (grelabel r parent) WC (gwf_relabel r parent WP Ri) Hok) as (b' & E' & S').
    apply (res_of_iff _ _ _ _ _ _ E' E S' S). apply contained_relabel_host_iff; auto.
Qed.

Lemma is_isomorphic_sym nm em g1 g2 : sym2 nm -> sym2 em -> gwf g1 -> gwf g2 ->
  is_isomorphic vf2b nm em g1 g2 = is_isomorphic vf2b nm em g2 g1.
Proof.
  intros Sn Se W1 W2. apply bool_iff. rewrite !(is_isomorphic_spec vf2b VB); auto. split; apply iso_exists_sym; auto.
Qed.

Lemma is_isomorphic_relabel nm em g1 g2 r : gwf g1 -> gwf g2 ->
  (inj_on r (node_ids g1) -> is_isomorphic vf2b nm em (grelabel r g1) g2 = is_isomorphic vf2b nm em g1 g2) /\
  (inj_on r (node_ids g2) -> is_isomorphic vf2b nm em g1 (grelabel r g2) = is_isomorphic vf2b nm em g1 g2).
Proof.
  intros W1 W2. split; intros Ri; apply bool_iff; rewrite !(is_isomorphic_spec vf2b VB); auto using gwf_relabel.
  - apply iso_relabel_host_iff; auto.
  - apply iso_relabel_pat_iff; auto.
Qed.

Lemma fgi_relabel ud fast a b d g1 g2 r : gwf g1 -> gwf g2 ->
  (inj_on r (node_ids g1) -> fgi vf2b ud fast a b d (grelabel r g1) g2 = fgi vf2b ud fast a b d g1 g2) /\
  (inj_on r (node_ids g2) -> fgi vf2b ud fast a b d g1 (grelabel r g2) = fgi vf2b ud fast a b d g1 g2).
Proof.
  intros W1 W2. split; intros Ri; apply bool_iff; rewrite !(fgi_spec vf2b VB); auto using gwf_relabel.
  - apply iso_relabel_host_iff; auto.
  - apply iso_relabel_pat_iff; auto.
Qed.

Lemma fgi_nm_sym ud a b : sym2 (fgi_nm ud a b).
Proof. destruct ud; simpl; [apply nm_sub_sym | apply any_attrs_sym]. Qed.
Lemma fgi_em_sym ud d : sym2 (fgi_em ud d).
Proof. destruct ud; simpl; [apply eqd_sym | apply any_attrs_sym]. Qed.

(** graph_isomorphism (with and without defaults) and find_graph_isomorphism's verdict are symmetric in their two arguments
    (their matchers are equalities) and invariant under an injective renaming of either argument *)
Theorem helpers_symmetric g1 g2 : gwf g1 -> gwf g2 ->
  (forall a b d, giso vf2b a b d g1 g2 = giso vf2b a b d g2 g1) /\
  giso0 vf2b g1 g2 = giso0 vf2b g2 g1 /\
  (forall ud fast a b d, fgi vf2b ud fast a b d g1 g2 = fgi vf2b ud fast a b d g2 g1).
Proof.
  intros W1 W2. split; [|split].
  - intros a b d. apply is_isomorphic_sym; auto; [apply nm_sub_sym | apply eqd_sym].
  - apply is_isomorphic_sym; auto; apply any_attrs_sym.
  - intros ud fast a b d. apply bool_iff. rewrite !(fgi_spec vf2b VB); auto.
    split; apply iso_exists_sym; auto using fgi_nm_sym, fgi_em_sym.
Qed.

Theorem helpers_relabel g1 g2 r : gwf g1 -> gwf g2 ->
  (inj_on r (node_ids g1) ->
     (forall a b d, giso vf2b a b d (grelabel r g1) g2 = giso vf2b a b d g1 g2) /\
     giso0 vf2b (grelabel r g1) g2 = giso0 vf2b g1 g2 /\
     (forall ud fast a b d, fgi vf2b ud fast a b d (grelabel r g1) g2 = fgi vf2b ud fast a b d g1 g2)) /\
  (inj_on r (node_ids g2) ->
     (forall a b d, giso vf2b a b d g1 (grelabel r g2) = giso vf2b a b d g1 g2) /\
     giso0 vf2b g1 (grelabel r g2) = giso0 vf2b g1 g2 /\
     (forall ud fast a b d, fgi vf2b ud fast a b d g1 (grelabel r g2) = fgi vf2b ud fast a b d g1 g2)).
Proof.
  intros W1 W2. split; intros Ri; (split; [|split]; intros;
    [apply (is_isomorphic_relabel _ _ g1 g2 r) | apply (is_isomorphic_relabel _ _ g1 g2 r) | apply (fgi_relabel _ _ _ _ _ g1 g2 r)]); auto.
Qed.

Hypothesis EN : enum_contract enum.

Lemma mfun_cons_other a b (m : mapping) u : u <> a -> mfun ((a, b) :: m) u = mfun m u.
Proof. intros Hne. unfold mfun. simpl. destruct (N.eqb u a) eqn:E; [apply N.eqb_eq in E; congruence|reflexivity]. Qed.

Lemma snd_as_mfun (m : mapping) : NoDup (map fst m) -> map snd m = map (mfun m) (map fst m).
Proof.
  induction m as [|[a b] m IH]; simpl; [reflexivity|]. intros Hnd. inversion Hnd as [|? ? Ha Hnd']; subst. f_equal.
  - unfold mfun. simpl. rewrite N.eqb_refl. reflexivity.
  - rewrite (IH Hnd'). apply map_ext_in. intros u Iu. symmetry. apply mfun_cons_other. intros ->. contradiction.
Qed.

Lemma iso_map_ext nm em G1 G2 f g : (forall u, In u (node_ids G2) -> f u = g u) -> iso_map nm em G1 G2 f -> iso_map nm em G1 G2 g.
Proof.
  intros Hfg ((E1 & E2 & E3) & On). split; [split; [|split]|].
  - intros u Iu. rewrite <- (Hfg u Iu). apply E1; auto.
  - intros u v Iu Iv E. rewrite <- (Hfg u Iu), <- (Hfg v Iv) in E. apply E2; auto.
  - intros u v Iu Iv Hne. rewrite <- (Hfg u Iu), <- (Hfg v Iv). apply E3; auto.
  - intros h Ih. destruct (On h Ih) as (u & Iu & E). exists u. split; auto. rewrite <- (Hfg u Iu). exact E.
Qed.

(** inverting a valid (pattern -> host) mapping of an isomorphism gives a valid isomorphism in the other direction *)
Lemma swap_iso nm em G1 G2 m0 : gwf G1 -> gwf G2 -> n_nodes G1 = n_nodes G2 -> mapping_valid true nm em G1 G2 m0 ->
  NoDup (map fst (swap_pairs m0)) /\ (forall h, In h (map fst (swap_pairs m0)) <-> In h (node_ids G1)) /\
  iso_map (flip2 nm) (flip2 em) G2 G1 (mfun (swap_pairs m0)).
Proof.
  intros W1 W2 En (Hnd & Hdom & He).
  pose proof (emb_onto _ _ _ _ _ W1 W2 En He) as Hi.
  destruct He as (E1 & E2 & E3). destruct Hi as (_ & On).
  assert (Snd : NoDup (map fst (swap_pairs m0))).
  { rewrite fst_swap_pairs, (snd_as_mfun m0 Hnd). apply NoDup_map_inj_in; auto.
    intros a b Ia Ib. apply E2; apply Hdom; auto. }
  assert (Sdom : forall h, In h (map fst (swap_pairs m0)) <-> In h (node_ids G1)).
  { intros h. rewrite fst_swap_pairs, (snd_as_mfun m0 Hnd), in_map_iff. split.
    - intros (u & <- & Iu). apply E1. apply Hdom. exact Iu.
    - intros Ih. destruct (On h Ih) as (u & Iu & E). exists u. split; auto. apply Hdom. exact Iu. }
  split; [exact Snd|]. split; [exact Sdom|].
  assert (Hi : iso_map nm em G1 G2 (mfun m0)) by (split; [split; [|split]|]; auto).
  destruct (iso_inverse _ _ _ _ _ Hi) as (Hinv & Gl & Gr).
  revert Hinv. apply iso_map_ext. intros h Ih.
  destruct (On h Ih) as (u & Iu & E). subst h. rewrite (Gl u Iu).
  unfold mfun at 1. rewrite (assoc_nodup_in (mfun m0 u) (swap_pairs m0) u Snd); [reflexivity|].
  apply in_swap_pairs. apply mfun_in; auto. apply Hdom. exact Iu.
Qed.

Lemma fgi_matchers ud fast dstar dzero done g1 g2 : fgi vf2b ud fast dstar dzero done g1 g2 = true ->
  is_isomorphic vf2b (fgi_nm ud dstar dzero) (fgi_em ud done) g1 g2 = true.
Proof.
  unfold fgi. destruct (fast && negb (fgi_fast g1 g2)); [discriminate|]. destruct ud; simpl; auto.
Qed.

(** find_graph_isomorphism: None exactly when the verdict is negative; a returned mapping has the nodes of G1 as keys, once each,
    and is an isomorphism G1 -> G2 under the matchers (bijective, adjacency preserved both ways, labels matched) *)
Theorem fgi_map_spec ud fast dstar dzero done g1 g2 : gwf g1 -> gwf g2 ->
  (fgi_map vf2b enum ud fast dstar dzero done g1 g2 = None <-> fgi vf2b ud fast dstar dzero done g1 g2 = false) /\
  (forall m, fgi_map vf2b enum ud fast dstar dzero done g1 g2 = Some m ->
     NoDup (map fst m) /\ (forall u, In u (map fst m) <-> In u (node_ids g1)) /\
     iso_map (flip2 (fgi_nm ud dstar dzero)) (flip2 (fgi_em ud done)) g2 g1 (mfun m)).
Proof.
  intros W1 W2. unfold fgi_map. destruct (fgi vf2b ud fast dstar dzero done g1 g2) eqn:F.
  - split; [split; discriminate|]. intros m Em.
    pose proof (fgi_matchers _ _ _ _ _ _ _ F) as Hi. unfold is_isomorphic in Hi. apply andb_true_iff in Hi. destruct Hi as (En & Hv).
    apply Nat.eqb_eq in En. apply (VB true _ _ g1 g2 W1 W2) in Hv.
    destruct (EN (fgi_nm ud dstar dzero) (fgi_em ud done) g1 g2 W1 W2) as (Ev & Ec). specialize (Ec Hv).
    assert (Em' : Some (match enum (fgi_nm ud dstar dzero) (fgi_em ud done) g1 g2 with m0 :: _ => swap_pairs m0 | [] => [] end) = Some m)
      by (destruct ud; exact Em).
    destruct (enum (fgi_nm ud dstar dzero) (fgi_em ud done) g1 g2) as [|m0 r]; [congruence|]. inversion Em'; subst m.
    apply swap_iso; auto. apply Ev. left. reflexivity.
  - split; [split; reflexivity|]. discriminate.
Qed.
End Entry.

(** intermediate values of the engine calls: what they say about the verdict *)
Lemma iso_trace_verdict vf2b e i g1 j g2 c :
  nth 2 (iso_trace e i g1 j g2 c) 9%N = 0%N -> fst (isomorphic vf2b e i g1 j g2 c) = false.
Proof.
  unfold iso_trace, isomorphic. destruct (n_nodes g2 <? n_nodes g1).
  - destruct (pre_check e i g1 j g2 c) as [ok c']. simpl. destruct ok; [discriminate|reflexivity].
  - destruct (pre_check e j g2 i g1 c) as [ok c']. simpl. destruct ok; [discriminate|reflexivity].
Qed.

Lemma maps_trace_verdict vf2b enum e hi H pi P c :
  nth 0 (maps_trace e hi H pi P c) 9%N = 0%N -> fst (get_mappings vf2b enum e hi H pi P c) = [].
Proof.
  unfold maps_trace, get_mappings. destruct (pre_check e hi H pi P c) as [ok c']. simpl. destruct ok; [discriminate|reflexivity].
Qed.

Definition ctor_fields (r : eng_raw) : engine :=
  Eng (match r_na r with Some (Some l) => l | _ => [] end) (match r_ea r with Some (Some l) => l | _ => [] end)
      (match r_wl r with Some b => b | None => false end) (match r_mm r with Some m => m | None => Some 1%N end).

(** the constructor accepts exactly the spellings of "nx" (case-insensitively; omitted = "nx") — with the mod package absent every other
    name is rejected with ValueError before the ImportError branch can be reached — and the engine it builds carries the
    normalised options: None / omitted attribute lists are empty, wl1_filter defaults to False, max_mappings to 1 (None = no limit) *)
Theorem eng_ctor_spec r :
  (r_backend_lower r = s_nx -> eng_ctor r = inl (ctor_fields r)) /\ (r_backend_lower r <> s_nx -> eng_ctor r = inr 3%N).
Proof.
  unfold eng_ctor, available_backends, rule_available. simpl. split.
  - intros E. rewrite E. reflexivity.
  - intros Hn. destruct (ln_eqb (r_backend_lower r) s_nx) eqn:E; [apply ln_eqb_eq in E; contradiction|reflexivity].
Qed.

Example ex_ctor :
  eng_ctor (ER (Some [78; 88]%N) (Some None) None (Some true) None) = inl (Eng [] [] true (Some 1%N)) /\      (* backend="NX", node_attrs=None *)
  eng_ctor (ER None None (Some (Some [4]%N)) None (Some None)) = inl (Eng [] [4]%N false None) /\           (* max_mappings=None *)
  eng_ctor (ER (Some [109; 111; 100]%N) None None None None) = inr 3%N /\                                   (* backend="mod" *)
  eng_ctor (ER (Some [82; 117; 108; 101]%N) None None None None) = inr 3%N.                                 (* backend="Rule" *)
Proof. repeat apply conj; vm_compute; reflexivity. Qed.
