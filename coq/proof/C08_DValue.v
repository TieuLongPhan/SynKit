(** C08 — directed inputs: the value wrappers on DiGraphs.  SynGraph compares the signature of the raw digraph,
    CanonicalGraph the signature of its canonical twin: with the exact back-end both are equal exactly for digraphs that
    are isomorphic as digraphs; with every back-end only for such digraphs.  Canonicalising a canonical digraph changes
    nothing.  Mirrors C08_Value.v. *)
From Coq Require Import List NArith ZArith Bool Arith Lia Permutation.
From SK Require Import lib.LGraph lib.StrJoin.
From SK Require Import model.C08_Model model.C08_Digraph proof.C08_Spec proof.C08_DSpec proof.C08_Sort proof.C08_Faithful proof.C08_Cov
                       proof.C08_SigFun proof.C08_Render proof.C08_Nauty proof.C08_Sound proof.C08_Invariant proof.C08_Value
                       proof.C08_DSer proof.C08_DNauty proof.C08_DEquiv proof.C08_DInvariant.
Import ListNotations.

(* ---------------- diso_cov is an equivalence on well-formed digraphs ---------------- *)
Lemma diso_cov_refl g : dwf g -> diso_cov g g.
Proof. exact (iso_by_refl _ _ dcov_laws g). Qed.
Lemma diso_cov_sym g h : dwf g -> dwf h -> diso_cov g h -> diso_cov h g.
Proof. exact (iso_by_sym _ _ dcov_laws g h). Qed.
Lemma diso_cov_trans g h k : diso_cov g h -> diso_cov h k -> diso_cov g k.
Proof. exact (iso_by_trans _ _ dcov_laws g h k). Qed.

(* ---------------- canonical digraphs are well formed ---------------- *)
Lemma dwf_relabel f (g : graph) : dwf g -> C08_Spec.inj_on f (node_ids g) -> dwf (relabel f g).
Proof.
  intros Hg Hi. pose proof (dsimple_relabel f g Hg Hi) as [S1 S2]. destruct Hg as (Hnd & Hend & Hu). split; [|split].
  - exact S1.
  - intros a b x I. unfold relabel in I. cbn [gedges] in I. apply in_map_iff in I. destruct I as ([[c d] y] & E & I).
    inversion E; subst. destruct (Hend _ _ _ I) as (Hc & Hd & Hne). rewrite node_ids_relabel.
    split; [apply in_map; auto|]. split; [apply in_map; auto|]. intro Q. apply Hne. apply Hi; auto.
  - rewrite <- dcov_fst. exact S2.
Qed.
Lemma dwf_same_edges (g k : graph) : dwf g -> Permutation (gnodes k) (gnodes g) -> gedges k = gedges g -> dwf k.
Proof.
  intros (Hnd & Hend & Hu) Hp He.
  assert (Hids : Permutation (node_ids k) (node_ids g)) by (apply Permutation_map; exact Hp).
  split; [|split].
  - exact (Permutation_NoDup (Permutation_sym Hids) Hnd).
  - intros a b x I. rewrite He in I. destruct (Hend _ _ _ I) as (A & B & C).
    split; [|split]; auto; apply (Permutation_in _ (Permutation_sym Hids)); auto.
  - rewrite He. exact Hu.
Qed.
Lemma dwf_faithful g cg : dwf g -> faithful g cg -> dwf cg.
Proof.
  intros Hg (f & Hf & Hp & He). apply (dwf_same_edges (relabel f g)); auto. apply dwf_relabel; auto.
Qed.
Lemma faithful_diso g cg : dwf g -> faithful g cg -> diso_cov g cg.
Proof.
  intros Hg Hf. destruct (faithful_dgeq_cov _ _ Hf) as (f & Hi & Hq). exists f. split; auto. apply dgeq_cov_sym. exact Hq.
Qed.

(* ---------------- idempotence ---------------- *)
Theorem dnauty_idempotent g : dwf g -> els_ok g ->
  dgeq_cov (dcanon_nauty g) (dcanon_nauty (dcanon_nauty g)) /\ dserialise (dcanon_nauty (dcanon_nauty g)) = dserialise (dcanon_nauty g).
Proof.
  intros Hg Eg. pose proof (faithful_dnauty g (proj1 Hg)) as Fg. pose proof (dwf_faithful _ _ Hg Fg) as Wg.
  destruct (dnauty_invariant g (dcanon_nauty g) Hg Wg Eg (faithful_diso _ _ Hg Fg)) as [H1 H2]. split; auto.
Qed.

Section DVO.
Variable D : Type.
Variable digest : str -> D.

(* CanonicalGraph of a DiGraph hashes the canonical twin once more *)
Theorem dcangraph_nauty g h : dwf g -> dwf h -> els_ok g -> els_ok h ->
  (digest (dser_nauty (dcanon_nauty g)) = digest (dser_nauty (dcanon_nauty h)) -> dser_nauty (dcanon_nauty g) = dser_nauty (dcanon_nauty h)) ->
  (digest (dser_nauty (dcanon_nauty g)) = digest (dser_nauty (dcanon_nauty h)) <-> diso_cov g h).
Proof.
  intros Hg Hh Eg Eh Hd.
  pose proof (faithful_dnauty g (proj1 Hg)) as Fg. pose proof (faithful_dnauty h (proj1 Hh)) as Fh.
  pose proof (dwf_faithful _ _ Hg Fg) as Wg. pose proof (dwf_faithful _ _ Hh Fh) as Wh.
  pose proof (faithful_els_ok _ _ Fg Eg) as Kg. pose proof (faithful_els_ok _ _ Fh Eh) as Kh.
  rewrite (dsignature_exact_nauty D digest (dcanon_nauty g) (dcanon_nauty h) Wg Wh Kg Kh Hd).
  apply (iso_by_twins _ _ dcov_laws g h _ _ Hg Hh Wg Wh); apply faithful_diso; auto.
Qed.
End DVO.

(* ---------------- the digest-free verdicts the correspondence evaluates on digraph cases ([drun_vo]) ---------------- *)
Theorem dvo_model_verdicts g h : dwf g -> dwf h -> els_ok g -> els_ok h ->
  (syngraph_eqb dser_nauty g h = true <-> diso_cov g h) /\
  (cangraph_eqb dcanon_nauty dser_nauty g h = true <-> diso_cov g h) /\
  (syngraph_eqb dser_generic g h = true -> diso_cov g h) /\
  (cangraph_eqb canon_generic dser_generic g h = true -> diso_cov g h).
Proof.
  intros Hg Hh Eg Eh. split; [|split; [|split]].
  - unfold syngraph_eqb. rewrite str_eqb_spec. apply (dsignature_exact_nauty str (fun s => s) g h); auto.
  - unfold cangraph_eqb. rewrite str_eqb_spec. apply (dcangraph_nauty str (fun s => s) g h); auto.
  - unfold syngraph_eqb. rewrite str_eqb_spec. intros E.
    apply (dsignature_sound_generic str (fun s => s) g h); auto.
  - unfold cangraph_eqb. rewrite str_eqb_spec. intros E.
    pose proof (faithful_generic g (proj1 Hg)) as Fg. pose proof (faithful_generic h (proj1 Hh)) as Fh.
    pose proof (dwf_faithful _ _ Hg Fg) as Wg. pose proof (dwf_faithful _ _ Hh Fh) as Wh.
    pose proof (faithful_els_ok _ _ Fg Eg) as Kg. pose proof (faithful_els_ok _ _ Fh Eh) as Kh.
    pose proof (dsignature_sound_generic str (fun s => s) (canon_generic g) (canon_generic h) Wg Wh Kg Kh (fun e => e) E) as Hi.
    apply (iso_by_twins _ _ dcov_laws g h _ _ Hg Hh Wg Wh); [apply faithful_diso; auto|apply faithful_diso; auto|exact Hi].
Qed.

(* non-vacuity: the witness pair of repair R5b compares equal, the transposed digraph does not *)
Example dvo_ex : syngraph_eqb dser_nauty dn_g dn_h = true /\ cangraph_eqb dcanon_nauty dser_nauty dn_g dn_h = true
                 /\ syngraph_eqb dser_nauty dn_g dn_t = false /\ syngraph_eqb dser_generic dn_g dn_t = false.
Proof.
  destruct dinv_ex as (Wg & Wh & Eg & Hi & _).
  destruct (dvo_model_verdicts dn_g dn_h Wg Wh Eg (els_okb_sound dn_h eq_refl)) as (V1 & V2 & _).
  split; [apply V1; exact Hi|]. split; [apply V2; exact Hi|]. split; vm_compute; reflexivity.
Qed.

Print Assumptions dnauty_idempotent.
Print Assumptions dcangraph_nauty.
Print Assumptions dvo_model_verdicts.
