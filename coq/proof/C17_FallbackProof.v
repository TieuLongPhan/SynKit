(** C17 — the no-SciPy fall-back verdicts never contradict the scan-level answers of the LP path, and positive scaling of the
    coefficients (fractional coefficients c / d written over their common denominator) changes neither conservativity nor consistency. *)
From Coq Require Import List ZArith Lia.
From SK Require Import lib.C17_Farkas model.C17_Model model.C17_Fallback proof.C17_Proof.
Import ListNotations.
Open Scope Z_scope.

(** whenever the fall-back gives a definite answer, the SciPy path gives the same one whatever its LP answers *)
Theorem noscipy_conservative_agrees k scanL b :
  conservative_verdict_noscipy k scanL = Some b ->
  forall lpL lpR scanR, conservative_verdict k (Num scanL lpL lpR scanR) = b.
Proof.
  unfold conservative_verdict_noscipy, conservative_verdict. simpl.
  destruct (k =? 0)%nat; [now intros [= <-]|].
  destruct scanL; [now intros [= <-]|].
  destruct (k =? 1)%nat; [now intros [= <-]|discriminate].
Qed.

(** and it is sound under the same premise as the SciPy path: a sign-definite basis column is a law / a flux *)
Theorem noscipy_verdicts_sound k kr n S scanL scanR :
  (scanL = true -> conservative n S) -> (scanR = true -> consistent n S) ->
  (conservative_verdict_noscipy k scanL = Some true -> conservative n S) /\
  (consistent_verdict_noscipy kr scanR = Some true -> consistent n S).
Proof.
  intros H1 H2. split.
  - intros H. apply (conservative_verdict_sound k (Num scanL false 0 false)); [exact H1|discriminate|].
    exact (noscipy_conservative_agrees k scanL true H false 0%nat false).
  - apply consistent_verdict_sound; [discriminate|exact H2].
Qed.

Lemma dot_scale_r d u v : dot u (map (Z.mul d) v) = d * dot u v.
Proof. now rewrite dot_comm, dot_scale_l, dot_comm. Qed.

Lemma col_mscale d j S : col j (mscale d S) = map (Z.mul d) (col j S).
Proof.
  unfold col, mscale. rewrite !map_map. apply map_ext. intros row.
  rewrite <- (map_nth (Z.mul d)), Z.mul_0_r. reflexivity.
Qed.

Lemma vecmat_mscale d n y S : vecmat n y (mscale d S) = map (Z.mul d) (vecmat n y S).
Proof.
  unfold vecmat. rewrite map_map. apply map_ext. intros j. now rewrite col_mscale, dot_scale_r.
Qed.

Lemma matvec_mscale d S v : matvec (mscale d S) v = map (Z.mul d) (matvec S v).
Proof.
  unfold matvec, mscale. rewrite !map_map. apply map_ext. intros row. apply dot_scale_l.
Qed.

Lemma Forall_zero_scale d l : d <> 0 -> (Forall (fun t => t = 0) (map (Z.mul d) l) <-> Forall (fun t => t = 0) l).
Proof.
  intros Hd. rewrite Forall_map, !Forall_forall. split; intros H a Ha; specialize (H a Ha); nia.
Qed.

(** a graph whose coefficients are c / d has, over the common denominator d > 0, the integer matrix d * S: conservativity and
    consistency are those of S *)
Theorem scaling_invariant d n S : 0 < d ->
  (conservative n (mscale d S) <-> conservative n S) /\ (consistent n (mscale d S) <-> consistent n S).
Proof.
  intros Hd. assert (Hd0 : d <> 0) by lia.
  assert (Hlen : length (mscale d S) = length S) by (unfold mscale; apply map_length).
  split; split; intros (w & H1 & H2 & H3); exists w.
  - rewrite Hlen in H1. rewrite vecmat_mscale in H3. apply Forall_zero_scale in H3; auto.
  - rewrite Hlen, vecmat_mscale. split; auto. split; auto. now apply Forall_zero_scale.
  - rewrite matvec_mscale in H3. apply Forall_zero_scale in H3; auto.
  - rewrite matvec_mscale. split; auto. split; auto. now apply Forall_zero_scale.
Qed.

Example noscipy_example :
  conservative_verdict_noscipy 2 false = None /\ conservative_verdict_noscipy 1 false = Some false /\
  conservative_verdict_noscipy 3 true = Some true /\ consistent_verdict_noscipy 2 false = None /\
  consistent_verdict_noscipy 0 false = Some false /\ mscale 4 [[1; -2]; [0; 3]] = [[4; -8]; [0; 12]].
Proof. vm_compute. repeat split; reflexivity. Qed.
