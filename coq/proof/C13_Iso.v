(** C13 -- the isomorphism test of the model ([graph_iso]: equal node counts + the verified enumerator Mono.monos,
    induced) IS an equivalence relation, and it decides exactly "there is a bijection of the nodes preserving
    element, charge and bond order (presence and order of every bond, both ways)".
    This discharges the premises [iso_refl / iso_sym / iso_trans] of the clustering theorems for the relation the
    correspondence actually evaluates; what remains trusted is that networkx VF2 computes the same verdicts
    (monitored on every run). *)
From Coq Require Import List ZArith Bool Lia Permutation.
From SK Require Import lib.LGraph lib.Mono lib.C12_MonoPw lib.C13_Partition model.C13_Model proof.C13_Proof.
Import ListNotations.

Lemma map_fst_combine' (c hs : list N) : length hs = length c -> map fst (combine c hs) = c.
Proof.
  revert hs. induction c as [|x r IH]; intros [|h hs] H; simpl in *; try discriminate; [reflexivity|].
  f_equal. apply IH. lia.
Qed.

Lemma combine_map_self (f : N -> N) l : combine l (map f l) = map (fun u => (u, f u)) l.
Proof. induction l as [|x r IH]; simpl; [reflexivity|now rewrite IH]. Qed.

Definition assocd (u : N) (l : list (N * N)) : N := match assoc u l with Some h => h | None => 0%N end.

Lemma assoc_list_as_map (l : list (N * N)) ids : map fst l = ids -> NoDup ids ->
  map (fun u => (u, assocd u l)) ids = l.
Proof.
  intros <-. induction l as [|[k v] r IH]; simpl; intros H; [reflexivity|].
  inversion H as [|? ? Hk Hr]; subst. f_equal.
  - unfold assocd. simpl. now rewrite N.eqb_refl.
  - transitivity (map (fun u => (u, assocd u r)) (map fst r)); [|exact (IH Hr)].
    apply map_ext_in. intros u Hu. unfold assocd. simpl.
    destruct (N.eqb_spec u k) as [->|Hne]; [contradiction|reflexivity].
Qed.

Lemma NoDup_map_injective {X Y} (f : X -> Y) l a b : NoDup (map f l) -> In a l -> In b l -> f a = f b -> a = b.
Proof.
  induction l as [|x r IH]; simpl; intros H Ia Ib E; [destruct Ia|].
  inversion H as [|? ? Hx Hr]; subst.
  destruct Ia as [<-|Ia], Ib as [<-|Ib].
  - reflexivity.
  - exfalso. apply Hx. rewrite E. now apply in_map.
  - exfalso. apply Hx. rewrite <- E. now apply in_map.
  - now apply IH.
Qed.

Section Iso.
Variable labelled : bool.
Variable defs : list N.
Notation nm := (node_match labelled defs).
Notation em := (edge_match labelled).

Lemma attrs_match_refl a : length defs <= length a -> attrs_match defs a a = true.
Proof.
  revert a. induction defs as [|d ds IH]; intros [|x a] H; simpl in *; try reflexivity; [lia|].
  rewrite N.eqb_refl. apply IH. lia.
Qed.

Lemma attrs_match_sym : forall a b, attrs_match defs a b = attrs_match defs b a.
Proof.
  induction defs as [|d ds IH]; intros [|x a] [|y b]; simpl; try reflexivity. now rewrite N.eqb_sym, IH.
Qed.

Lemma attrs_match_trans : forall a b c, attrs_match defs a b = true -> attrs_match defs b c = true -> attrs_match defs a c = true.
Proof.
  induction defs as [|d ds IH]; intros [|x a] [|y b] [|z c]; simpl; try discriminate; try reflexivity.
  intros H1 H2. apply andb_prop in H1, H2. destruct H1 as [E1 H1], H2 as [E2 H2].
  apply N.eqb_eq in E1, E2. rewrite E1, E2, N.eqb_refl. simpl. eapply IH; eauto.
Qed.

Lemma nm_sym x y : nm x y = nm y x.
Proof. destruct x, y; simpl; try reflexivity. destruct labelled; [apply attrs_match_sym|reflexivity]. Qed.

Lemma nm_trans x y z : nm x y = true -> nm y z = true -> nm x z = true.
Proof.
  destruct x, y, z; simpl; try discriminate. destruct labelled; [apply attrs_match_trans|reflexivity].
Qed.

Lemma em_refl b : em b b = true.
Proof. unfold edge_match. destruct labelled; [apply zlist_eqb_refl|reflexivity]. Qed.

Lemma em_sym a b : em a b = em b a.
Proof.
  unfold edge_match. destruct labelled; [|reflexivity].
  destruct (zlist_eqb (order_or_default a) (order_or_default b)) eqn:E1, (zlist_eqb (order_or_default b) (order_or_default a)) eqn:E2;
    try reflexivity.
  - apply zlist_eqb_eq in E1. rewrite E1, zlist_eqb_refl in E2. discriminate.
  - apply zlist_eqb_eq in E2. rewrite E2, zlist_eqb_refl in E1. discriminate.
Qed.

Lemma em_trans a b c : em a b = true -> em b c = true -> em a c = true.
Proof.
  unfold edge_match. destruct labelled; [|reflexivity]. intros H1 H2. apply zlist_eqb_eq in H1, H2.
  rewrite H1, H2. apply zlist_eqb_refl.
Qed.

(** bond between u and v in the pattern [ga] against the bond between their images in the host [gb] *)
Definition eok (ga gb : graph) (f : N -> N) (u v : N) : bool :=
  edge_ok (LGraph.adj ga) (LGraph.adj gb) em true u (f u) (v, f v).

Lemma eok_prop (ga gb : graph) f u v :
  eok ga gb f u v = true <->
  match LGraph.adj ga u v, LGraph.adj gb (f u) (f v) with
  | Some b, Some b' => em b' b = true
  | None, None => True
  | _, _ => False
  end.
Proof.
  unfold eok, edge_ok. simpl. destruct (LGraph.adj ga u v), (LGraph.adj gb (f u) (f v)); simpl; split; auto; discriminate.
Qed.

(** [f] maps the nodes of g2 bijectively (given equal node counts) onto the nodes of g1, preserving labels and bonds *)
Definition fiso (g1 g2 : graph) (f : N -> N) : Prop :=
  NoDup (map f (node_ids g2)) /\ incl (map f (node_ids g2)) (node_ids g1) /\
  (forall u, In u (node_ids g2) -> nm (label g1 (f u)) (label g2 u) = true) /\
  (forall u v, In u (node_ids g2) -> In v (node_ids g2) -> u <> v -> eok g2 g1 f u v = true).

Definition isomorphic (g1 g2 : graph) : Prop :=
  length (gnodes g1) = length (gnodes g2) /\ exists f, fiso g1 g2 f.

Notation PW g1 g2 := (pw (node_ids g1) (label g2) (label g1) (LGraph.adj g2) (LGraph.adj g1) nm em true).

Lemma pw_fiso g1 g2 f : PW g1 g2 (map (fun u => (u, f u)) (node_ids g2)) <-> fiso g1 g2 f.
Proof.
  unfold pw, fiso. rewrite map_map. simpl. split.
  - intros (P1 & P2 & P3). split; [exact P2|]. split; [|split].
    + intros h Hh. apply in_map_iff in Hh. destruct Hh as (u & <- & Hu).
      apply (P1 u (f u)). apply in_map_iff. eauto.
    + intros u Hu. apply (P1 u (f u)). apply in_map_iff. eauto.
    + intros u v Hu Hv Hne. unfold eok.
      apply (P3 (u, f u) (v, f v)); [apply in_map_iff; eauto|apply in_map_iff; eauto|congruence].
  - intros (F1 & F2 & F3 & F4). split; [|split; [exact F1|]].
    + intros p h I. apply in_map_iff in I. destruct I as (u & E & Hu). inversion E; subst.
      split; [apply F2; now apply in_map|now apply F3].
    + intros x y Ix Iy Hne. apply in_map_iff in Ix, Iy. destruct Ix as (u & <- & Hu), Iy as (v & <- & Hv).
      simpl. apply (F4 u v Hu Hv). congruence.
Qed.

Theorem graph_iso_spec g1 g2 : NoDup (node_ids g2) ->
  (graph_iso labelled defs g1 g2 = true <-> isomorphic g1 g2).
Proof.
  intros N2. unfold graph_iso, isomorphic. rewrite andb_true_iff, Nat.eqb_eq.
  set (ms := monos (node_ids g2) (node_ids g1) (label g2) (label g1) (LGraph.adj g2) (LGraph.adj g1) nm em true).
  split; intros (Hlen & H); (split; [exact Hlen|]).
  - destruct ms as [|m0 r] eqn:Em; [discriminate|].
    assert (I : In m0 ms) by (rewrite Em; now left).
    destruct (monos_only_such _ _ _ _ _ _ _ _ _ _ I) as (hs & Hl & E & Hv).
    apply (valid_pw _ _ _ _ _ _ _ _ (adj_sym g2) (adj_sym g1)) in Hv.
    set (l := combine (node_ids g2) hs).
    assert (Hfst : map fst l = node_ids g2) by (now apply map_fst_combine').
    exists (fun u => assocd u l). apply pw_fiso.
    rewrite (assoc_list_as_map l _ Hfst N2).
    eapply pw_perm; [|exact Hv]. rewrite E. apply Permutation_sym, Permutation_rev.
  - destruct H as (f & Hf). apply pw_fiso in Hf. rewrite <- combine_map_self in Hf.
    assert (I : In (rev (combine (node_ids g2) (map f (node_ids g2)))) ms).
    { apply monos_spec; [now rewrite map_length|]. apply pw_valid. eapply pw_perm; [apply Permutation_rev|exact Hf]. }
    destruct ms; [destruct I|reflexivity].
Qed.

(** labels can only be compared when every node carries the configured attributes *)
Definition wf_graph (g : graph) : Prop :=
  NoDup (node_ids g) /\ forall u a, In (u, a) (gnodes g) -> length defs <= length a.

Lemma fiso_refl g : wf_graph g -> fiso g g (fun u => u).
Proof.
  intros (Hn & Ha). split; [now rewrite map_id|]. split; [rewrite map_id; apply incl_refl|]. split.
  - intros u Hu. apply in_map_iff in Hu. destruct Hu as ([u' a] & <- & I). simpl.
    unfold label. rewrite (assoc_nodup_in _ _ _ Hn I). simpl.
    destruct labelled; [apply attrs_match_refl; eauto|reflexivity].
  - intros u v _ _ _. apply eok_prop. destruct (LGraph.adj g u v); [apply em_refl|exact I].
Qed.

Lemma fiso_trans g1 g2 g3 f f' : fiso g1 g2 f -> fiso g2 g3 f' -> fiso g1 g3 (fun u => f (f' u)).
Proof.
  intros (F1 & F2 & F3 & F4) (G1 & G2 & G3 & G4).
  assert (Hin : forall u, In u (node_ids g3) -> In (f' u) (node_ids g2)) by (intros u Hu; apply G2; now apply in_map).
  split; [|split; [|split]].
  - rewrite <- (map_map f' f). apply NoDup_map_inj_in; [|exact G1].
    intros a b Ia Ib. apply (NoDup_map_injective f (node_ids g2)); auto.
  - intros h Hh. apply in_map_iff in Hh. destruct Hh as (u & <- & Hu). apply F2. apply in_map. auto.
  - intros u Hu. eapply nm_trans; [apply F3; auto|apply G3; exact Hu].
  - intros u v Hu Hv Hne.
    assert (Hne' : f' u <> f' v) by (intros E; apply Hne; eapply (NoDup_map_injective f' (node_ids g3)); eauto).
    pose proof (F4 (f' u) (f' v) (Hin u Hu) (Hin v Hv) Hne') as E12. pose proof (G4 u v Hu Hv Hne) as E23.
    apply eok_prop. apply eok_prop in E12, E23.
    destruct (LGraph.adj g3 u v), (LGraph.adj g2 (f' u) (f' v)), (LGraph.adj g1 (f (f' u)) (f (f' v)));
      try contradiction; [exact (em_trans _ _ _ E12 E23)|exact I].
Qed.

Lemma fiso_sym g1 g2 f : NoDup (node_ids g1) -> length (node_ids g1) = length (node_ids g2) ->
  fiso g1 g2 f -> exists g, fiso g2 g1 g.
Proof.
  intros N1 Hlen (F1 & F2 & F3 & F4).
  assert (P : Permutation (map f (node_ids g2)) (node_ids g1)).
  { apply NoDup_Permutation_bis; [exact F1|rewrite map_length; lia|exact F2]. }
  set (g := fun u => match find (fun v => N.eqb (f v) u) (node_ids g2) with Some v => v | None => 0%N end).
  assert (Hg : forall u, In u (node_ids g1) -> In (g u) (node_ids g2) /\ f (g u) = u).
  { intros u Hu. unfold g. destruct (find (fun v => N.eqb (f v) u) (node_ids g2)) as [v|] eqn:Ef.
    - apply find_some in Ef. destruct Ef as (Hv & E). apply N.eqb_eq in E. auto.
    - exfalso. apply (Permutation_in _ (Permutation_sym P)) in Hu. apply in_map_iff in Hu. destruct Hu as (v & E & Hv).
      pose proof (find_none _ _ Ef v Hv) as Hf. simpl in Hf. rewrite E, N.eqb_refl in Hf. discriminate. }
  exists g. split; [|split; [|split]].
  - apply NoDup_map_inj_in; [|exact N1]. intros a b Ia Ib E.
    destruct (Hg a Ia) as (_ & <-). destruct (Hg b Ib) as (_ & <-). now rewrite E.
  - intros v Hv. apply in_map_iff in Hv. destruct Hv as (u & <- & Hu). now apply Hg.
  - intros u Hu. destruct (Hg u Hu) as (Hv & E). pose proof (F3 (g u) Hv) as H3. rewrite E in H3. now rewrite nm_sym.
  - intros u v Hu Hv Hne. destruct (Hg u Hu) as (Hu' & Eu). destruct (Hg v Hv) as (Hv' & Ev).
    assert (Hne' : g u <> g v) by (intros E; apply Hne; rewrite <- Eu, <- Ev; now rewrite E).
    pose proof (F4 (g u) (g v) Hu' Hv' Hne') as E21. apply eok_prop. apply eok_prop in E21. rewrite Eu, Ev in E21.
    destruct (LGraph.adj g1 u v), (LGraph.adj g2 (g u) (g v)); try contradiction; [now rewrite em_sym|exact I].
Qed.

Lemma n_ids (g : graph) : length (node_ids g) = length (gnodes g).
Proof. apply map_length. Qed.

Theorem isomorphic_refl g : wf_graph g -> isomorphic g g.
Proof. intros H. split; [reflexivity|]. exists (fun u => u). now apply fiso_refl. Qed.

Theorem isomorphic_sym g1 g2 : NoDup (node_ids g1) -> isomorphic g1 g2 -> isomorphic g2 g1.
Proof.
  intros N1 (Hl & f & Hf). split; [now symmetry|]. apply (fiso_sym g1 g2 f N1); [now rewrite !n_ids|exact Hf].
Qed.

Theorem isomorphic_trans g1 g2 g3 : isomorphic g1 g2 -> isomorphic g2 g3 -> isomorphic g1 g3.
Proof.
  intros (Hl & f & Hf) (Hl' & f' & Hf'). split; [congruence|]. exists (fun u => f (f' u)). eapply fiso_trans; eauto.
Qed.

Definition wf_item (x : item) : Prop := wf_graph (it_graph x).

Theorem item_iso_refl x : wf_item x -> item_iso labelled defs x x = true.
Proof. intros H. unfold item_iso. apply graph_iso_spec; [apply H|]. now apply isomorphic_refl. Qed.

Theorem item_iso_sym x y : wf_item x -> wf_item y -> item_iso labelled defs x y = true -> item_iso labelled defs y x = true.
Proof.
  intros Hx Hy. unfold item_iso. rewrite (graph_iso_spec _ _ (proj1 Hy)), (graph_iso_spec _ _ (proj1 Hx)).
  apply isomorphic_sym. apply Hx.
Qed.

Theorem item_iso_trans x y z : wf_item x -> wf_item y -> wf_item z ->
  item_iso labelled defs x y = true -> item_iso labelled defs y z = true -> item_iso labelled defs x z = true.
Proof.
  intros Hx Hy Hz. unfold item_iso.
  rewrite (graph_iso_spec _ _ (proj1 Hy)), !(graph_iso_spec _ _ (proj1 Hz)). apply isomorphic_trans.
Qed.

End Iso.

Theorem isomorphic_meaning labelled defs (g1 g2 : graph) :
  isomorphic labelled defs g1 g2 <->
  length (gnodes g1) = length (gnodes g2) /\
  exists f : N -> N,
    NoDup (map f (node_ids g2)) /\ incl (map f (node_ids g2)) (node_ids g1) /\
    (forall u, In u (node_ids g2) -> node_match labelled defs (label g1 (f u)) (label g2 u) = true) /\
    (forall u v, In u (node_ids g2) -> In v (node_ids g2) -> u <> v ->
       match LGraph.adj g2 u v, LGraph.adj g1 (f u) (f v) with
       | Some b, Some b' => edge_match labelled b' b = true
       | None, None => True
       | _, _ => False
       end).
Proof.
  unfold isomorphic, fiso. split; intros (Hl & f & F1 & F2 & F3 & F4); (split; [exact Hl|]); exists f;
    (split; [exact F1|]); (split; [exact F2|]); (split; [exact F3|]); intros u v Hu Hv Hne;
    apply eok_prop; now apply F4.
Qed.

Section Instance.
Variable labelled : bool.
Variable defs : list N.
Variable mode : attr_mode.
Notation iso := (item_iso labelled defs).
Notation D := (wf_item defs).

(** the pre-grouping attribute is invariant under isomorphism (premise on the DATA; nothing to assume for mode ANone) *)
Definition attr_invariant : Prop :=
  forall x y, D x -> D y -> isomorphic labelled defs (it_graph x) (it_graph y) -> gc_key mode x = gc_key mode y.

Lemma attr_invariant_iso : attr_invariant -> forall x y, D x -> D y -> iso x y = true -> gc_key mode x = gc_key mode y.
Proof.
  intros H x y Dx Dy E. apply H; auto. unfold item_iso in E. now apply (graph_iso_spec labelled defs _ _ (proj1 Dy)).
Qed.

Theorem partition_graphs data : attr_invariant -> Forall D data ->
  length (gc_fit iso mode data) = length data /\
  forall i j x y, nth_error data i = Some x -> nth_error data j = Some y ->
  exists ci cj,
    nth_error (gc_fit iso mode data) i = Some (Some ci) /\
    nth_error (gc_fit iso mode data) j = Some (Some cj) /\
    ci < length (fst (gc_iterative iso mode data)) /\
    (ci = cj <-> isomorphic labelled defs (it_graph x) (it_graph y)).
Proof.
  intros Ha HD.
  destruct (partition_full iso mode D (item_iso_refl labelled defs) (item_iso_sym labelled defs)
              (item_iso_trans labelled defs) (attr_invariant_iso Ha) data HD) as (Hlen & Hall).
  split; [exact Hlen|]. intros i j x y Hx Hy. destruct (Hall i j x y Hx Hy) as (ci & cj & Ei & Ej & Hb & _ & Hiff).
  exists ci, cj. split; [exact Ei|]. split; [exact Ej|]. split; [exact Hb|].
  rewrite Hiff. unfold item_iso. apply graph_iso_spec.
  rewrite Forall_forall in HD. apply (HD y). eapply nth_error_In; eauto.
Qed.

Theorem batch_any_order_graphs data data' bs picks : attr_invariant -> Permutation data data' -> Forall D data ->
  valid_batch_size bs ->
  forall i j i' j' x y,
    nth_error data i = Some x -> nth_error data j = Some y ->
    nth_error data' i' = Some x -> nth_error data' j' = Some y ->
    (nth_error (fst (fit iso mode data' [] bs picks)) i' = nth_error (fst (fit iso mode data' [] bs picks)) j' <->
     isomorphic labelled defs (it_graph x) (it_graph y)).
Proof.
  intros Ha P HD Hbs i j i' j' x y Hx Hy Hx' Hy'.
  rewrite <- (batch_any_order iso mode D (item_iso_refl labelled defs) (item_iso_sym labelled defs)
                (item_iso_trans labelled defs) (attr_invariant_iso Ha) data data' bs picks P HD Hbs i j i' j' x y Hx Hy Hx' Hy').
  destruct (proj2 (partition_graphs data Ha HD) i j x y Hx Hy) as (ci & cj & Ei & Ej & _ & Hiff).
  rewrite Ei, Ej, <- Hiff. split; [intros E; now inversion E|intros ->; reflexivity].
Qed.

End Instance.

Lemma attr_invariant_none labelled defs : attr_invariant labelled defs ANone.
Proof. intros x y _ _ _. reflexivity. Qed.

Module Example_iso.
Import Example_graphs.
(** g1 = C-N single, g3 = relabelled copy (charge missing on one node: default 0), g2 = C-N with another order *)
Lemma wf_pool x : In x pool -> wf_item [9; 0]%N x.
Proof.
  intros [<-|[<-|[<-|[]]]]; (split; [vm_compute; repeat constructor; simpl; intuition discriminate|]);
    intros u a [E|[E|[]]]; inversion E; simpl; lia.
Qed.
Lemma wf2 : wf_item [9; 0]%N (MkItem 1 [] g2). Proof. apply wf_pool. right. now left. Qed.
Lemma wf3 : wf_item [9; 0]%N (MkItem 2 [] g3). Proof. apply wf_pool. right. right. now left. Qed.

Example iso_spec_nonvacuous :
  isomorphic true [9; 0]%N g1 g3 /\ ~ isomorphic true [9; 0]%N g1 g2 /\ isomorphic false [9; 0]%N g1 g2.
Proof.
  split; [|split].
  - apply (graph_iso_spec true [9; 0]%N g1 g3 (proj1 wf3)). vm_compute. reflexivity.
  - intros H. apply (graph_iso_spec true [9; 0]%N g1 g2 (proj1 wf2)) in H. vm_compute in H. discriminate.
  - apply (graph_iso_spec false [9; 0]%N g1 g2 (proj1 wf2)). vm_compute. reflexivity.
Qed.

Example partition_graphs_nonvacuous :
  exists ci cj, nth_error (gc_fit (item_iso true [9; 0]%N) ANone pool) 0 = Some (Some ci) /\
                nth_error (gc_fit (item_iso true [9; 0]%N) ANone pool) 2 = Some (Some cj) /\
                ci < length (fst (gc_iterative (item_iso true [9; 0]%N) ANone pool)) /\
                (ci = cj <-> isomorphic true [9; 0]%N g1 g3).
Proof.
  assert (HD : Forall (wf_item [9; 0]%N) pool) by (apply Forall_forall; exact wf_pool).
  exact (proj2 (partition_graphs true [9; 0]%N ANone pool (attr_invariant_none _ _) HD) 0 2 _ _ eq_refl eq_refl).
Qed.
End Example_iso.
