(** C18 — the canonical graph is the view relabelled by a bijection onto k+1..k+n (C18_canon_iso), and equal canonical
    graphs force isomorphic views (C18_canon_complete). *)
From Coq Require Import List NArith ZArith Bool Arith Lia Permutation.
From SK Require Import lib.IRSortKeys lib.IRCore lib.IRSearch lib.C18_IRValid model.C18_Model
  proof.C18_Order proof.C18_Spec proof.C18_Graph.
From SK Require lib.IRInst.
Import ListNotations.

Lemma Zleb_total a b : Z.leb a b = true \/ Z.leb b a = true.
Proof. destruct (Z.leb_spec a b); auto. right. apply Z.leb_le. lia. Qed.
Lemma Zleb_trans a b c : Z.leb a b = true -> Z.leb b c = true -> Z.leb a c = true.
Proof. rewrite !Z.leb_le. lia. Qed.
Lemma Zleb_antisym a b : Z.leb a b = true -> Z.leb b a = true -> a = b.
Proof. rewrite !Z.leb_le. lia. Qed.
Lemma Nleb_total a b : N.leb a b = true \/ N.leb b a = true.
Proof. destruct (N.leb_spec a b); auto. right. apply N.leb_le. lia. Qed.
Lemma Nleb_trans a b c : N.leb a b = true -> N.leb b c = true -> N.leb a c = true.
Proof. rewrite !N.leb_le. lia. Qed.
Lemma Nleb_antisym a b : N.leb a b = true -> N.leb b a = true -> a = b.
Proof. rewrite !N.leb_le. lia. Qed.
Lemma eqb_Zleb a b : eqb Z.leb a b = Z.eqb a b.
Proof. unfold eqb. destruct (Z.leb_spec a b), (Z.leb_spec b a), (Z.eqb_spec a b); auto; lia. Qed.

Lemma sortN_in l x : In x (sortN l) <-> In x l.
Proof. apply (sort_dedup_in N.leb Nleb_antisym). Qed.
Lemma sortN_nodup l : NoDup (sortN l).
Proof. apply (ssorted_NoDup _ N.leb Nleb_total). apply (sort_dedup_sorted N.leb Nleb_total Nleb_trans Nleb_antisym). Qed.
Lemma sortN_perm l : NoDup l -> Permutation (sortN l) l.
Proof. intros H. apply NoDup_Permutation; auto; [apply sortN_nodup|apply sortN_in]. Qed.

(* ---------------- the initial partition ---------------- *)
Lemma concat_perm_pointwise {A X} (F G : X -> list A) ks :
  (forall k, In k ks -> Permutation (F k) (G k)) -> Permutation (concat (map F ks)) (concat (map G ks)).
Proof. induction ks; simpl; intros H; auto. apply Permutation_app; auto. Qed.

Lemma kind_cell g k : NoDup (node_ids g) ->
  map fst (filter (fun p => Z.eqb (snd p) k) (vnodes g)) = filter (fun v => eqb Z.leb (kind_of g v) k) (node_ids g).
Proof.
  intros Hnd. unfold node_ids. apply map_filter_comm. intros [v k'] I. simpl.
  unfold kind_of. rewrite (kind_of_l_in _ v k' Hnd I). apply eqb_Zleb.
Qed.

Lemma init_part_vpart g : NoDup (node_ids g) -> vpart (node_ids g) (init_part g).
Proof.
  intros Hnd. unfold init_part. split.
  - eapply perm_trans.
    + apply (concat_perm_pointwise _ (fun k => filter (fun v => eqb Z.leb (kind_of g v) k) (node_ids g))).
      intros k _. rewrite kind_cell; auto. apply sortN_perm. apply NoDup_filter. auto.
    + rewrite concat_map_flat_map.
      apply (groups_perm _ Z.leb Zleb_total Zleb_antisym (kind_of g)).
      * apply (ssorted_NoDup _ Z.leb Zleb_total). apply (sort_dedup_sorted Z.leb Zleb_total Zleb_trans Zleb_antisym).
      * intros v Hv. apply (sort_dedup_in Z.leb Zleb_antisym).
        destruct (in_map_fst_ex _ _ Hv) as (k & Ik). unfold kind_of. rewrite (kind_of_l_in _ v k Hnd Ik).
        apply in_map_iff. exists (v, k). auto.
  - apply Forall_forall. intros c Hc. apply in_map_iff in Hc. destruct Hc as (k & <- & Hk).
    apply (proj1 (sort_dedup_in Z.leb Zleb_antisym _ _)) in Hk. apply in_map_iff in Hk. destruct Hk as ([v k'] & E & I).
    simpl in E. subst k'. intro E.
    assert (Hin : In v (sortN (map fst (filter (fun p => Z.eqb (snd p) k) (vnodes g))))).
    { apply sortN_in. apply in_map_iff. exists (v, k). split; auto. apply filter_In. split; auto. simpl. apply Z.eqb_refl. }
    rewrite E in Hin. contradiction.
Qed.

(* ---------------- what the fold of [visit] returns ---------------- *)
Section Fold.
Variable L : Type.
Variable leb : L -> L -> bool.
Variable label : list N -> L.
Lemma fold_visit_best l : forall a bl bp,
  (forall bl0 bp0, fst a = Some (bl0, bp0) -> bl0 = label bp0 /\ In bp0 l) ->
  fst (fold_left (visit leb label) l a) = Some (bl, bp) -> bl = label bp /\ In bp l.
Proof.
  assert (G : forall l' a bl bp, incl l' l ->
    (forall bl0 bp0, fst a = Some (bl0, bp0) -> bl0 = label bp0 /\ In bp0 l) ->
    fst (fold_left (visit leb label) l' a) = Some (bl, bp) -> bl = label bp /\ In bp l).
  { induction l' as [|p l' IH]; simpl; intros a bl bp Hi Ha H; [apply Ha; auto|].
    eapply IH; [intros x Hx; apply Hi; right; auto| |exact H].
    intros bl0 bp0. unfold visit. destruct (fst a) as [[b q]|] eqn:Ea.
    - destruct (ltb leb (label p) b); simpl.
      + intros E; inversion E; subst. split; auto. apply Hi. left. auto.
      + destruct (eqb leb (label p) b); simpl; rewrite ?Ea; intros E; inversion E; subst; apply Ha; auto.
    - simpl. intros E; inversion E; subst. split; auto. apply Hi. left. auto. }
  intros a bl bp. apply G. apply incl_refl.
Qed.
Lemma fold_visit_some l : forall a, (l <> [] \/ fst a <> None) -> fst (fold_left (visit leb label) l a) <> None.
Proof.
  induction l as [|p l IH]; simpl; intros a [H|H]; try congruence.
  - apply IH. right. unfold visit. destruct (fst a) as [[b q]|] eqn:Ea; simpl; [|discriminate].
    destruct (ltb leb (label p) b); simpl; [discriminate|]. destruct (eqb leb (label p) b); simpl; rewrite ?Ea; discriminate.
  - apply IH. right. unfold visit. destruct (fst a) as [[b q]|] eqn:Ea; simpl; [|discriminate].
    destruct (ltb leb (label p) b); simpl; [discriminate|]. destruct (eqb leb (label p) b); simpl; rewrite ?Ea; discriminate.
Qed.
End Fold.

(* ---------------- leaves of the model ---------------- *)
Lemma lexleb_total : forall a b, IRInst.lexleb a b = true \/ IRInst.lexleb b a = true.
Proof. exact IRInst.lexleb_total. Qed.

Lemma leaves_of_shape g p : wf g -> In p (leaves_of g) ->
  exists pre r, p = pre ++ r /\ Permutation r (node_ids g).
Proof.
  intros (Hnd & _) Hin. unfold leaves_of in Hin.
  destruct (leaves_shape _ IRInst.lexleb IRInst.lexleb_total
              (fun a b c H1 H2 => IRInst.lexleb_trans a b c H1 H2) IRInst.lexleb_antisym
              (sig g) _ (node_ids g) Hnd _ _ _ _ (init_part_vpart g Hnd) Hin) as (ext & r & -> & Hr & _).
  exists ext, r. auto.
Qed.

Lemma leaves_of_nonempty g : wf g -> leaves_of g <> [].
Proof.
  intros (Hnd & _). unfold leaves_of.
  apply (leaves_nonempty _ IRInst.lexleb IRInst.lexleb_total
              (fun a b c H1 H2 => IRInst.lexleb_trans a b c H1 H2) IRInst.lexleb_antisym
              (sig g) _ (node_ids g) Hnd); [apply init_part_vpart; auto|].
  unfold node_ids. rewrite map_length. lia.
Qed.

Lemma best_is_leaf g lab perm : fst (canon_search g) = Some (lab, perm) -> lab = label g perm /\ In perm (leaves_of g).
Proof.
  rewrite canon_search_fold. apply fold_visit_best. simpl. intros; discriminate.
Qed.

Theorem canon_found g : wf g -> fst (canon_search g) <> None.
Proof.
  intros Hw. rewrite canon_search_fold. apply fold_visit_some. left. apply leaves_of_nonempty. auto.
Qed.

(* ---------------- (1) the canonical graph is an isomorphic copy ---------------- *)
(** clause 1 for a numbering [perm]: the canonical graph is the view relabelled by [cid perm], injectively, onto k+1..k+n,
    kinds and arcs carried over *)
Definition canon_copy (g : vgraph) (perm : list N) : Prop :=
  canon_graph g perm = relabel (cid perm) g /\
  inj_on (cid perm) (node_ids g) /\
  (exists k, Permutation (node_ids (canon_graph g perm)) (map N.of_nat (seq (S k) (length (vnodes g))))) /\
  wf (canon_graph g perm) /\
  (forall v, In v (node_ids g) -> kind_of (canon_graph g perm) (cid perm v) = kind_of g v) /\
  (forall u v, In u (node_ids g) -> In v (node_ids g) ->
     find_arc (canon_graph g perm) (cid perm u) (cid perm v) = find_arc g u v).

Lemma canon_graph_leaf g pre r : wf g -> Permutation r (node_ids g) -> canon_copy g (pre ++ r).
Proof.
  intros Hw Hr. unfold canon_copy.
  assert (Hndr : NoDup r) by (eapply Permutation_NoDup; [apply Permutation_sym; exact Hr|apply Hw]).
  pose proof (cid_inj_on pre r (node_ids g) Hndr Hr) as Hinj.
  change (canon_graph g (pre ++ r)) with (relabel (cid (pre ++ r)) g).
  split; [reflexivity|]. split; [exact Hinj|]. split; [|split; [|split]].
  - exists (length pre). rewrite node_ids_relabel.
    replace (length (vnodes g)) with (length (node_ids g)) by (unfold node_ids; apply map_length).
    apply cid_range; auto.
  - apply wf_relabel; auto.
  - intros v Hv. apply kind_of_relabel; auto.
  - intros u v Hu Hv. apply find_arc_relabel; auto.
Qed.

Theorem canon_iso g lab perm : wf g -> fst (canon_search g) = Some (lab, perm) -> canon_copy g perm.
Proof.
  intros Hw Hb. destruct (best_is_leaf g lab perm Hb) as [_ Hl].
  destruct (leaves_of_shape g perm Hw Hl) as (pre & r & -> & Hr). exact (canon_graph_leaf g pre r Hw Hr).
Qed.

Corollary canon_iso_iso g lab perm : wf g -> fst (canon_search g) = Some (lab, perm) -> iso g (canon_graph g perm).
Proof.
  intros Hw Hb. destruct (canon_iso g lab perm Hw Hb) as (E & Hinj & _).
  exists (cid perm). split; auto. rewrite E. apply geq_refl.
Qed.

(* ---------------- (3) completeness ---------------- *)
Theorem canon_complete g1 g2 l1 p1 l2 p2 : wf g1 -> wf g2 ->
  fst (canon_search g1) = Some (l1, p1) -> fst (canon_search g2) = Some (l2, p2) ->
  geq (canon_graph g1 p1) (canon_graph g2 p2) -> iso g1 g2.
Proof.
  intros W1 W2 B1 B2 Hg.
  eapply iso_trans; [apply (canon_iso_iso g1 l1 p1 W1 B1)|].
  eapply iso_trans; [apply geq_iso; exact Hg|].
  apply iso_sym; auto. apply (canon_iso_iso g2 l2 p2 W2 B2).
Qed.
