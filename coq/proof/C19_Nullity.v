(** C19 — the nullity reported by nondegeneracy_test is the dimension of the left kernel of S (MathComp style). *)
From mathcomp Require Import ssreflect ssrbool ssrnat seq matrix mxalgebra rat.
From Coq Require Import ZArith.
From SK Require Import lib.RankBridge.
Require SK.model.C17_Model SK.model.C19_Model SK.model.C19_Api SK.proof.C17_Rank SK.proof.C19_ApiProof.
Set Implicit Arguments. Unset Strict Implicit. Unset Printing Implicit Defensive.

(** accepted rank certificate of S (m x n) => the nullity = dim {y | y S = 0} = dim ker(S^T), exact over the rationals;
    it never exceeds the number of species *)
Theorem nondeg_nullity_exact net iso (rc : C17_Model.rcert) cs mis d :
  let m := length (C17_Model.species_order net iso) in
  let n := length (C17_Model.reaction_order net) in
  let S := C17_Model.build_S net iso in
  C17_Model.rank_checked m n S rc = true ->
  SK.model.C19_Api.nondeg m (C17_Model.rc_r rc) cs mis = Some d ->
  SK.model.C19_Api.nd_nullity d = \rank (kermx (toM m n S)) /\
  (SK.model.C19_Api.nd_nullity d + C17_Model.rc_r rc = m)%nat.
Proof.
move=> m n S C /SK.proof.C19_ApiProof.nondeg_max [_ [-> _]].
have [-> _] := C17_Rank.kernel_dims C; split=> //.
by have [/subnK] := C17_Rank.rank_bounds C.
Qed.

(* non-vacuity: A + B <-> C, C -> 2A  (3 species, rank 2): nullity 1 *)
Example ex_nullity :
  SK.model.C19_Api.nondeg 3 2 [:: [:: 1; 1; 0]; [:: 0; 0; 1]; [:: 2; 0; 0]]%Z [:: 2%nat]
  = Some (SK.model.C19_Api.ND 1 [:: (2%nat, false)] false 2%Z true).
Proof. by []. Qed.
