(** C03 — rule preparation in the DEFAULT mode (SynRule.__init__ with implicit_h=True) for a template that has no
    explicit hydrogen atoms: nothing is stripped, every hydrogen count of the rule becomes 0 on both sides — the rule
    keeps the template's bonds, elements and charges and ignores hydrogen changes written implicitly (they must be
    written with explicit H atoms in this mode: the API precondition the oracle applies, tpl_mode_ok in harness/gen/c03_common.py). *)
From Coq Require Import List NArith ZArith Bool Lia.
From SK Require Import lib.Tok lib.LGraph model.C03_Model proof.C03_Proof proof.C03_Glue proof.C03_Backward.
Import ListNotations.
Local Open Scope Z_scope.

Lemma filter_nil {A} (f : A -> bool) l : (forall x, In x l -> f x = false) -> filter f l = [].
Proof. induction l as [|x r IH]; simpl; intros H; [reflexivity|]. rewrite (H x) by auto. apply IH. intros; apply H; auto. Qed.

Lemma h_nodes_m_nil (g : molg) : (forall k a, In (k, a) (gnodes g) -> N.eqb (m_el a) EL_H = false) -> h_nodes_m g = [].
Proof. intros H. unfold h_nodes_m. rewrite filter_nil; [reflexivity|]. intros [k a] I. apply (H k a I). Qed.
Lemma h_nodes_i_nil (g : its) : (forall k a, In (k, a) (gnodes g) -> N.eqb (a_el (iG a)) EL_H = false) -> h_nodes_i g = [].
Proof. intros H. unfold h_nodes_i. rewrite filter_nil; [reflexivity|]. intros [k a] I. apply (H k a I). Qed.

Lemma in_map_nodes {A B} (g : lgraph A B) f k a : In (k, a) (gnodes (map_nodes g f)) -> exists a0, In (k, a0) (gnodes g) /\ a = f k a0.
Proof.
  unfold map_nodes; simpl. intros I. apply in_map_iff in I. destruct I as ([k0 a0] & E & I). inversion E; subst. eauto.
Qed.

Theorem synrule_default_noH (tpl : its) :
  nodupb (node_ids tpl) = true ->
  forallb (fun p => negb (N.eqb (a_el (iG (snd p))) EL_H) && negb (N.eqb (a_el (iH (snd p))) EL_H)) (gnodes tpl) = true ->
  exists l r, synrule tpl true = Some (default_rc tpl, l, r).
Proof.
  intros Hnd Hno. apply nodupb_NoDup in Hnd. rewrite forallb_forall in Hno.
  assert (HG : forall k a, In (k, a) (gnodes tpl) -> N.eqb (a_el (iG a)) EL_H = false /\ N.eqb (a_el (iH a)) EL_H = false).
  { intros k a I. specialize (Hno _ I). simpl in Hno. apply andb_prop in Hno. destruct Hno as [H1 H2].
    apply negb_true_iff in H1, H2. auto. }
  unfold synrule. cbn [negb]. set (rc0 := standardize_hydrogen tpl).
  assert (Hrc0 : forall k a, In (k, a) (gnodes rc0) -> exists a0, In (k, a0) (gnodes tpl) /\ a = std_h_node a0).
  { intros k a I. apply in_map_nodes in I. exact I. }
  unfold its_decompose. set (l0 := dec_side iG eG rc0). set (r0 := dec_side iH eH rc0).
  unfold strip_explicit_h. cbn [fst snd].
  assert (HL : h_nodes_m (init_m l0) = []).
  { apply h_nodes_m_nil. intros k a I. apply in_map_nodes in I. destruct I as (a1 & I & ->). simpl.
    unfold l0, dec_side in I; simpl in I. apply in_map_iff in I. destruct I as ([k2 a2] & E & I). inversion E; subst.
    destruct (Hrc0 _ _ I) as (a0 & I0 & ->). simpl. exact (proj1 (HG _ _ I0)). }
  assert (HR : h_nodes_m (init_m r0) = []).
  { apply h_nodes_m_nil. intros k a I. apply in_map_nodes in I. destruct I as (a1 & I & ->). simpl.
    unfold r0, dec_side in I; simpl in I. apply in_map_iff in I. destruct I as ([k2 a2] & E & I). inversion E; subst.
    destruct (Hrc0 _ _ I) as (a0 & I0 & ->). simpl. exact (proj2 (HG _ _ I0)). }
  assert (HI : h_nodes_i (init_i rc0) = []).
  { apply h_nodes_i_nil. intros k a I. apply in_map_nodes in I. destruct I as (a1 & I & ->). simpl.
    destruct (Hrc0 _ _ I) as (a0 & I0 & ->). simpl. exact (proj1 (HG _ _ I0)). }
  unfold shared_h. rewrite HL. cbn [fold_right sort_N]. unfold strip_shared. cbn [fold_left fst].
  unfold step3_rc. cbn [fst snd]. rewrite HI. cbn [fold_left].
  unfold step3_l. cbn [fst snd]. rewrite HL. cbn [fold_left].
  unfold step3_r. cbn [fst snd]. rewrite HR. cbn [fold_left].
  exists (init_m l0), (init_m r0).
  assert (E : refresh_types (init_i rc0) (init_m l0) (init_m r0) = Some (default_rc tpl)); [|rewrite E; reflexivity].
  unfold refresh_types.
  match goal with |- context [fold_right ?f _ _] => set (F := f) end.
  assert (H : forall ns, (forall k a, In (k, a) ns -> label tpl k = Some a) ->
            fold_right F (Some []) (map (fun p => (fst p, (fun a => IN (iG (std_h_node a)) (iH (std_h_node a)) 0
                                       (if N.eqb (a_el (iG (std_h_node a))) EL_H then i_hp (std_h_node a) else hp_default (i_hp (std_h_node a)))) (snd p))) ns)
            = Some (map (fun p => (fst p, strip0 (snd p))) ns)).
  { induction ns as [|[k a] r IH]; intros Hall; [reflexivity|].
    cbn [map fold_right fst snd]. rewrite IH by (intros; apply Hall; right; assumption).
    pose proof (Hall k a (or_introl eq_refl)) as Hk.
    unfold F, label, init_m, map_nodes, l0, r0, dec_side, rc0, standardize_hydrogen, map_nodes in *. cbn [fst snd gnodes].
    rewrite !map_map. cbn [fst snd].
    rewrite (assoc_map (fun a0 => MN (m_el (dec_node (iG (std_h_node a0)))) (m_aro (dec_node (iG (std_h_node a0)))) 0 (m_ch (dec_node (iG (std_h_node a0))))
                                   (if N.eqb (m_el (dec_node (iG (std_h_node a0)))) EL_H then m_hp (dec_node (iG (std_h_node a0))) else hp_default (m_hp (dec_node (iG (std_h_node a0))))))).
    rewrite (assoc_map (fun a0 => MN (m_el (dec_node (iH (std_h_node a0)))) (m_aro (dec_node (iH (std_h_node a0)))) 0 (m_ch (dec_node (iH (std_h_node a0))))
                                   (if N.eqb (m_el (dec_node (iH (std_h_node a0)))) EL_H then m_hp (dec_node (iH (std_h_node a0))) else hp_default (m_hp (dec_node (iH (std_h_node a0))))))).
    rewrite Hk. cbn [option_map m_hc]. f_equal. f_equal. f_equal.
    unfold strip0, std_h_node. cbn [iG iH i_hp a_el set_hc a_aro a_ch a_nb].
    assert (Ik : In (k, a) (gnodes tpl)) by (apply assoc_in; exact Hk).
    rewrite (proj1 (HG k a Ik)). unfold hp_default. destruct (i_hp a); reflexivity. }
  unfold init_i, map_nodes, rc0, standardize_hydrogen, map_nodes. cbn [gnodes gedges]. rewrite map_map. cbn [fst snd].
  rewrite H; [reflexivity|]. intros k a I. apply assoc_nodup_in; assumption.
Qed.

(** consequence: such a rule has no hydrogen change anywhere, keeps the template's bonds and charges *)
Lemma default_rc_facts tpl :
  gedges (default_rc tpl) = gedges tpl /\ node_ids (default_rc tpl) = node_ids tpl /\
  sumZ dH (default_rc tpl) = 0 /\ sumZ dQ (default_rc tpl) = sumZ dQ tpl /\
  (forall k a, In (k, a) (gnodes (default_rc tpl)) -> a_hc (iG a) = 0 /\ a_hc (iH a) = 0).
Proof.
  split; [reflexivity|]. split; [unfold node_ids, default_rc; simpl; rewrite map_map; reflexivity|]. split; [|split].
  - unfold sumZ, default_rc; cbn [gnodes]. rewrite (sumL_map dH strip0). induction (gnodes tpl) as [|[k a] r IH]; simpl; [reflexivity|].
    rewrite IH. unfold dH; simpl. lia.
  - unfold sumZ, default_rc; cbn [gnodes]. rewrite (sumL_map dQ strip0). apply sumL_ext_in. intros; reflexivity.
  - intros k a I. unfold default_rc in I; simpl in I. apply in_map_iff in I. destruct I as ([k0 a0] & E & _). inversion E; subst. split; reflexivity.
Qed.

(** * the limitation as a refuted clause: with a template that writes a hydrogen change implicitly (thioester formation,
      [SH] -> [S], [OH] -> [OH2]) the default-mode rule does not apply that change — a matched atom of the proposed
      ITS has a hydrogen-count change different from its template atom's *)
Definition rf_tpl : its :=
  LG [(2%N, IN (NA 83%N false 1 0 []) (NA 83%N false 0 0 []) 0 None); (4%N, IN (NA 67%N false 0 0 []) (NA 67%N false 0 0 []) 0 None);
      (6%N, IN (NA 79%N false 1 0 []) (NA 79%N false 2 0 []) 0 None)]
     [(2%N, 4%N, (0, 2, -2)); (4%N, 6%N, (2, 0, 2))].
Definition rf_host : hostg :=
  LG [(1%N, NA 67%N false 3 0 []); (2%N, NA 83%N false 1 0 []); (3%N, NA 67%N false 3 0 []); (4%N, NA 67%N false 0 0 []);
      (5%N, NA 79%N false 0 0 []); (6%N, NA 79%N false 1 0 [])]
     [(1%N, 2%N, 2); (3%N, 4%N, 2); (4%N, 5%N, 4); (4%N, 6%N, 2)].
Definition rf_m : mapping := [(2%N, 2%N); (4%N, 4%N); (6%N, 6%N)].
Definition rf_rc : its := default_rc rf_tpl.
Definition rf_T : its := match glue rf_host rf_rc rf_m with Some t => t | None => LG [] [] end.

Lemma default_mode_implicit_template_refuted :
  exists (tpl rc : its) (l r : molg) (host : hostg) (m : mapping) (T : its) (p h : N) (pn a : inode),
    balancedb tpl = true /\ synrule tpl true = Some (rc, l, r) /\
    wf_hostb host = true /\ wf_rcb rc = true /\ match_rcb host rc m = true /\ glue host rc m = Some T /\
    In (p, pn) (gnodes tpl) /\ mget m p = Some h /\ label T h = Some a /\ dH a <> dH pn.
Proof.
  exists rf_tpl, rf_rc, (match synrule rf_tpl true with Some t => snd (fst t) | None => LG [] [] end),
         (match synrule rf_tpl true with Some t => snd t | None => LG [] [] end), rf_host, rf_m, rf_T, 2%N, 2%N,
         (IN (NA 83%N false 1 0 []) (NA 83%N false 0 0 []) 0 None),
         (match label rf_T 2%N with Some a => a | None => H_inode end).
  vm_compute. repeat split; try reflexivity; try (left; reflexivity). discriminate.
Qed.
