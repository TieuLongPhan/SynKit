(** C02 — get_rc with options (model/C02_Model.v [get_rc_x]) as the instance of the generic [get_rc_g] at [xnode]:
    what keep_mtg, disconnected and element_key add to the default centre; agreement with [get_rc]. *)
From Coq Require Import List NArith ZArith Bool.
From SK Require Import lib.LGraph lib.C01_GraphLemmas model.C01_Model model.C02_Model model.C02_Store.
From SK Require Export proof.C02_Generic.
Import ListNotations.
Local Open Scope Z_scope.

(** * get_rc_x is get_rc_g *)
Definition ish_x (a : xnode) : bool := match x_el a with Some e => N.eqb e EL_H | None => false end.

Lemma get_rc_x_is_generic K : get_rc_x K = get_rc_g (sel_attr K) (sel_attr_hh K) ish_x charge_changed.
Proof. reflexivity. Qed.

(** the atom lies on an included bond / on an H-H bond ([inc_end_g] / [hh_end_g] at [xnode]) *)
Definition inc_end (m : bool) (g : xits) (n : N) : Prop := exists v x, adj g n v = Some x /\ include_x m x = true.
Definition hh_end (g : xits) (n : N) : Prop := exists v x, adj g n v = Some x /\ is_hh_x g n v = true.

Lemma rcx_wf K d m (g : xits) : wf g -> wf (get_rc_x K d m g).
Proof. rewrite get_rc_x_is_generic. exact (rcg_wf (sel_attr K) (sel_attr_hh K) ish_x charge_changed d m g). Qed.

Lemma rcx_edges K d m (g : xits) : wf g -> forall u v y,
  adj (get_rc_x K d m g) u v = Some y <->
  exists x, adj g u v = Some x /\
    (((include_x m x = true \/ is_hh_x g u v = true) /\ y = out_edge x) \/
     (include_x m x = false /\ is_hh_x g u v = false /\ d = true /\
      In u (node_ids (get_rc_x K d m g)) /\ In v (node_ids (get_rc_x K d m g)) /\ y = out_edge_rec x)).
Proof. rewrite get_rc_x_is_generic. exact (rcg_edges (sel_attr K) (sel_attr_hh K) ish_x charge_changed d m g). Qed.

Theorem rcx_nodes K d m (g : xits) : wf g -> forall n b,
  label (get_rc_x K d m g) n = Some b <->
  exists a, label g n = Some a /\
    ((inc_end m g n /\ b = sel_attr K a) \/
     (~ inc_end m g n /\ hh_end g n /\ b = sel_attr_hh K a) \/
     (~ inc_end m g n /\ ~ hh_end g n /\ d = true /\ charge_changed a = true /\ b = sel_attr K a)).
Proof. rewrite get_rc_x_is_generic. exact (rcg_nodes (sel_attr K) (sel_attr_hh K) ish_x charge_changed d m g). Qed.

Theorem rcx_default_sub K d m (g : xits) : wf g ->
  (forall n, In n (node_ids (get_rc_x K false false g)) -> In n (node_ids (get_rc_x K d m g))) /\
  (forall u v y, adj (get_rc_x K false false g) u v = Some y -> adj (get_rc_x K d m g) u v = Some y).
Proof. rewrite get_rc_x_is_generic. exact (rcg_default_sub (sel_attr K) (sel_attr_hh K) ish_x charge_changed d m g). Qed.

(** the centre for keep_mtg = False ignores the flags *)
Lemma include_x_false x : include_x false x = changed (fst x).
Proof. unfold include_x. simpl. apply orb_false_r. Qed.

(** keep_mtg (disconnected = False): bonds of the centre = changed or flagged or H-H bonds *)
Theorem rcx_keep_mtg K (g : xits) : wf g -> forall u v y,
  adj (get_rc_x K false true g) u v = Some y <->
  exists x, adj g u v = Some x /\ y = out_edge x /\
            (changed (fst x) = true \/ mtg_flag x = true \/ is_hh_x g u v = true).
Proof.
  intros W u v y. rewrite (rcx_edges K false true g W). unfold include_x. simpl. split.
  - intros (x & A & [[H ->]|(_ & _ & C & _)]); [|discriminate]. exists x. rewrite orb_true_iff in H. tauto.
  - intros (x & A & -> & H). exists x. split; [exact A|]. left. rewrite orb_true_iff. tauto.
Qed.

Theorem rcx_disconnected K m (g : xits) : wf g ->
  let R := get_rc_x K true m g in
  (forall n, In n (node_ids R) <->
             In n (node_ids (get_rc_x K false m g)) \/ (exists a, label g n = Some a /\ charge_changed a = true)) /\
  (forall u v e, (exists y, adj R u v = Some y /\ fst y = e) <->
                 (exists x, adj g u v = Some x /\ fst x = e) /\ In u (node_ids R) /\ In v (node_ids R)).
Proof. rewrite get_rc_x_is_generic. exact (rcg_disconnected (sel_attr K) (sel_attr_hh K) ish_x charge_changed m g). Qed.

Theorem rcx_equivariant (f : N -> N) (Hinj : forall a b, f a = f b -> a = b) K d m (g : xits) :
  get_rc_x K d m (relabel f g) = relabel f (get_rc_x K d m g).
Proof. rewrite get_rc_x_is_generic. exact (rcg_equivariant (sel_attr K) (sel_attr_hh K) ish_x charge_changed f Hinj d m g). Qed.

Theorem rcx_of_ball K m (G : xits) : wf G -> forall (S : list N) (k : nat),
  (forall n, In n (node_ids (get_rc_x K false m G)) -> In n S) ->
  geq (get_rc_x K false m (ball_sub G S k)) (get_rc_x K false m G).
Proof. intros W S k. exact (rcg_of_ball (sel_attr K) (sel_attr_hh K) ish_x charge_changed m G W S k). Qed.

(** * idempotence when element_key keeps element and typesGH *)
Lemma pick_idem {T} b (o : option T) : pick b (pick b o) = pick b o.
Proof. destruct b; reflexivity. Qed.
Lemma sel_attr_idem K a : sel_attr K (sel_attr K a) = sel_attr K a.
Proof. unfold sel_attr. simpl. rewrite !pick_idem. reflexivity. Qed.
Lemma sel_attr_hh_idem K a : sel_attr_hh K (sel_attr_hh K a) = sel_attr_hh K a.
Proof. unfold sel_attr_hh. simpl. rewrite !pick_idem. reflexivity. Qed.
Lemma cc_sel_attr K a : k_gh K = true -> charge_changed (sel_attr K a) = charge_changed a.
Proof. intros E. unfold charge_changed, sel_attr. simpl. rewrite E. reflexivity. Qed.
Lemma cc_sel_attr_hh K a : charge_changed a = true -> charge_changed (sel_attr_hh K a) = true.
Proof. unfold charge_changed, sel_attr_hh. simpl. destruct (x_gh a) as [[tg th]|]; [auto|discriminate]. Qed.

Theorem rcx_idem K d m (g : xits) : k_el K = true -> k_gh K = true -> wf g ->
  geq (get_rc_x K d m (get_rc_x K d m g)) (get_rc_x K d m g).
Proof.
  intros Kel Kgh. rewrite get_rc_x_is_generic. apply rcg_idem.
  - apply sel_attr_idem.
  - apply sel_attr_hh_idem.
  - intros a. unfold ish_x, sel_attr. simpl. rewrite Kel. reflexivity.
  - intros a. unfold ish_x, sel_attr_hh. simpl. rewrite Kel. reflexivity.
  - intros a. apply cc_sel_attr. exact Kgh.
  - apply cc_sel_attr_hh.
Qed.

(** * with the default options (and keep_mtg = False, or no bond flagged) get_rc_x is get_rc, is_mtg forgotten *)
Definition forget (es : list (N * N * xedge)) : list (N * N * iedge) := map (fun e => let '(a, b, x) := e in (a, b, fst x)) es.
Definition xmapn (ns : list (N * inode)) : list (N * xnode) := map (fun p => (fst p, xn_of (snd p))) ns.

Lemma label_gmap {A A' B B'} (fn : A -> A') (fe : B -> B') (g : lgraph A B) n : label (gmap fn fe g) n = option_map fn (label g n).
Proof. unfold label, gmap. simpl. apply (assoc_map_val (fun _ a => fn a)). Qed.
Lemma adj_gmap {A A' B B'} (fn : A -> A') (fe : B -> B') (g : lgraph A B) u v : adj (gmap fn fe g) u v = option_map fe (adj g u v).
Proof. unfold adj, gmap. simpl. apply find_edge_map. Qed.
Lemma node_ids_gmap {A A' B B'} (fn : A -> A') (fe : B -> B') (g : lgraph A B) : node_ids (gmap fn fe g) = node_ids g.
Proof. unfold node_ids, gmap. simpl. rewrite map_map. reflexivity. Qed.

Lemma wf_gmap {A A' B B'} (fn : A -> A') (fe : B -> B') (g : lgraph A B) : wf g -> wf (gmap fn fe g).
Proof.
  intros W. pose proof (wf_simple W) as Hs. destruct W as (W1 & W2 & _).
  apply wf_intro.
  - rewrite node_ids_gmap. exact W1.
  - rewrite node_ids_gmap. intros a b x I. unfold gmap in I. simpl in I. apply in_map_iff in I. destruct I as ([[a' b'] x'] & E & I).
    inversion E; subst. exact (W2 _ _ _ I).
  - unfold gmap. simpl. exact (simple_map_attr (fun _ _ x => fe x) Hs).
Qed.

Lemma has_key_xmapn n ns : has_key_x n (xmapn ns) = has_key n ns.
Proof. unfold has_key_x, has_key, xmapn. rewrite (assoc_map_val (fun _ (a : inode) => xn_of a)). destruct (assoc n ns); reflexivity. Qed.

Lemma sel_default_xn a : sel_attr K_default (xn_of a) = xn_of (rc_attr a).
Proof. destruct a. reflexivity. Qed.
Lemma sel_hh_default_xn a : sel_attr_hh K_default (xn_of a) = xn_of (rc_attr a).
Proof. destruct a. reflexivity. Qed.

Lemma ensure_sim (f : xnode -> xnode) (g : fits) n ns : (forall a, f (xn_of a) = xn_of (rc_attr a)) ->
  ensure_x f (emb_f g) n (xmapn ns) = xmapn (ensure_node (strip_f g) n ns).
Proof.
  intros Hf. unfold ensure_x, ensure_node, emb_f, strip_f. rewrite has_key_xmapn, !label_gmap. fold xedge.
  destruct (has_key n ns); [reflexivity|]. destruct (label g n) as [a|]; simpl; [|reflexivity].
  unfold xmapn. rewrite map_app. simpl. rewrite Hf. reflexivity.
Qed.

Lemma is_hh_sim (g : fits) u v : is_hh_x (emb_f g) u v = is_hh (strip_f g) u v.
Proof.
  unfold is_hh_x, is_hh, is_h_x, is_h, emb_f, strip_f. rewrite !label_gmap. fold xedge.
  destruct (label g u); destruct (label g v); reflexivity.
Qed.

(** the two programs run in lock step: same atoms up to [xn_of], same bonds up to the is_mtg attribute *)
Definition simst (stx : rcx_state) (st : rc_state) : Prop := fst stx = xmapn (fst st) /\ forget (snd stx) = snd st.

Lemma forget_app a b : forget (a ++ b) = forget a ++ forget b.
Proof. apply map_app. Qed.

Lemma fold_changed_sim (g : fits) m (L : list (N * N * xedge)) :
  (forall u v x, In (u, v, x) L -> include_x m x = changed (fst x)) -> forall stx st, simst stx st ->
  simst (fold_left (step_changed_x K_default m (emb_f g)) L stx) (fold_left (step_changed (strip_f g)) (forget L) st).
Proof.
  induction L as [|[[u v] x] L IH]; intros Hm stx st Hs; simpl; [exact Hs|].
  apply IH; [intros; eapply Hm; right; eauto|].
  rewrite (Hm u v x (or_introl eq_refl)). destruct (changed (fst x)); [|exact Hs].
  destruct Hs as [H1 H2]. split; simpl.
  - rewrite H1, !(ensure_sim _ g _ _ sel_default_xn). reflexivity.
  - rewrite forget_app, H2. reflexivity.
Qed.

Lemma fold_hh_sim (g : fits) (L : list (N * N * xedge)) : forall stx st, simst stx st ->
  simst (fold_left (step_hh_x K_default (emb_f g)) L stx) (fold_left (step_hh (strip_f g)) (forget L) st).
Proof.
  induction L as [|[[u v] x] L IH]; intros stx st Hs; simpl; [exact Hs|].
  apply IH. rewrite is_hh_sim. destruct (is_hh (strip_f g) u v); [|exact Hs].
  destruct stx as [nsx esx]. destruct st as [ns0 es0]. destruct Hs as [H1 H2]. simpl in H1, H2. subst nsx es0. split; simpl.
  - rewrite !(ensure_sim _ g _ _ sel_hh_default_xn). reflexivity.
  - unfold forget at 1. rewrite (find_edge_map (@fst iedge (option bool))).
    unfold xedge in *. destruct (find_edge u v esx) eqn:F; simpl; [reflexivity|]. rewrite forget_app. reflexivity.
Qed.

Lemma gmap_gmap {A A' A'' B B' B''} (fn : A -> A') (fn' : A' -> A'') (fe : B -> B') (fe' : B' -> B'') (g : lgraph A B) :
  gmap fn' fe' (gmap fn fe g) = gmap (fun a => fn' (fn a)) (fun x => fe' (fe x)) g.
Proof. unfold gmap. simpl. rewrite !map_map. f_equal. apply map_ext. intros [[u v] x]. reflexivity. Qed.

Lemma gmap_id_in {A B} (fn : A -> A) (fe : B -> B) (g : lgraph A B) :
  (forall n a, In (n, a) (gnodes g) -> fn a = a) -> (forall u v x, In (u, v, x) (gedges g) -> fe x = x) -> gmap fn fe g = g.
Proof.
  intros Hn He. destruct g as [ns es]. unfold gmap. simpl in *. f_equal.
  - rewrite <- (map_id ns) at 2. apply map_ext_in. intros [n a] I. simpl. rewrite (Hn n a I). reflexivity.
  - rewrite <- (map_id es) at 2. apply map_ext_in. intros [[u v] x] I. rewrite (He u v x I). reflexivity.
Qed.

Theorem rcx_default_is_get_rc (g : fits) (m : bool) :
  (m = false \/ forall u v x, In (u, v, x) (gedges g) -> mtg_flag x = false) ->
  gmap (fun a : xnode => a) (@fst iedge (option bool)) (get_rc_x K_default false m (emb_f g)) =
  gmap xn_of (fun e : iedge => e) (get_rc (strip_f g)).
Proof.
  intros Hm.
  assert (forall u v x, In (u, v, x) (gedges g) -> include_x m x = changed (fst x)) as Hinc.
  { intros u v x I. unfold include_x. destruct Hm as [->|Hf]; [apply orb_false_r|].
    rewrite (Hf u v x I), andb_false_r. apply orb_false_r. }
  assert (gedges (emb_f g) = gedges g) as Ee.
  { unfold emb_f, gmap. simpl. rewrite <- (map_id (gedges g)) at 2. apply map_ext. intros [[a b] x]. reflexivity. }
  unfold get_rc_x, get_rc. cbv zeta. rewrite Ee. change (gedges (strip_f g)) with (forget (gedges g)).
  pose proof (fold_hh_sim g (gedges g) _ _ (fold_changed_sim g m (gedges g) Hinc ([], []) ([], []) (conj eq_refl eq_refl))) as [H1 H2].
  unfold gmap. simpl. f_equal.
  - rewrite H1. unfold xmapn. rewrite !map_map. apply map_ext. intros [n a]. reflexivity.
  - rewrite <- H2. unfold forget. rewrite map_map. apply map_ext. intros [[a b] x]. reflexivity.
Qed.

(** for an ITS without is_mtg attributes every bond of the default centre carries is_mtg = False *)
Theorem rcx_default_emb (g : its) :
  get_rc_x K_default false false (emb g) = gmap xn_of (fun e : iedge => (e, Some false)) (get_rc g).
Proof.
  pose (gf := gmap (fun a : inode => a) (fun e : iedge => (e, @None bool)) g : fits).
  pose proof (rcx_default_is_get_rc gf false (or_introl eq_refl)) as H.
  unfold emb_f, strip_f, gf in H. rewrite !gmap_gmap in H.
  rewrite (gmap_id_in (fun a => a) (fun x : iedge => fst (x, @None bool)) g) in H by (intros; reflexivity).
  change (gmap (fun a : inode => xn_of a) (fun x : iedge => (x, @None bool)) g) with (emb g) in H.
  apply (f_equal (gmap (fun a : xnode => a) (fun e : iedge => (e, Some false)))) in H. rewrite !gmap_gmap in H.
  refine (eq_trans _ H). symmetry. apply gmap_id_in; [reflexivity|].
  (* a bond of the centre is [out_edge] of a bond of [emb g], none of which is flagged *)
  intros u v x I. rewrite get_rc_x_is_generic in I. apply rcg_edges_out in I. destruct I as ([[u' v'] x0] & I & E).
  injection E as -> -> ->. unfold emb, gmap in I. simpl in I. apply in_map_iff in I. destruct I as ([[a b] e] & [= _ _ <-] & _). reflexivity.
Qed.

(** * reading get_rc off get_rc_x: [gmap] with injective label maps reflects equality and well-formedness, and
    [emb] commutes with renumbering *)
Lemma gmap_inj {A A' B B'} (fn : A -> A') (fe : B -> B') (g h : lgraph A B) :
  (forall a b, fn a = fn b -> a = b) -> (forall x y, fe x = fe y -> x = y) -> gmap fn fe g = gmap fn fe h -> g = h.
Proof.
  intros Hn He. destruct g as [ns es], h as [ns' es']. unfold gmap. simpl. intros [= En Ee]. f_equal.
  - revert ns' En. induction ns as [|[n a] r IH]; intros [|[n' a'] r'] E; try discriminate; [reflexivity|].
    simpl in E. injection E as -> Ea Er. rewrite (Hn _ _ Ea), (IH _ Er). reflexivity.
  - revert es' Ee. induction es as [|[[u v] x] r IH]; intros [|[[u' v'] x'] r'] E; try discriminate; [reflexivity|].
    simpl in E. injection E as -> -> Ex Er. rewrite (He _ _ Ex), (IH _ Er). reflexivity.
Qed.

Lemma geq_gmap_inv {A A' B B'} (fn : A -> A') (fe : B -> B') (g h : lgraph A B) :
  (forall a b, fn a = fn b -> a = b) -> (forall x y, fe x = fe y -> x = y) -> geq (gmap fn fe g) (gmap fn fe h) -> geq g h.
Proof.
  intros Hn He [GL GA]. split.
  - intros n. specialize (GL n). rewrite !label_gmap in GL.
    destruct (label g n), (label h n); simpl in GL; try discriminate; [injection GL as E; rewrite (Hn _ _ E)|]; reflexivity.
  - intros u v. specialize (GA u v). rewrite !adj_gmap in GA.
    destruct (adj g u v), (adj h u v); simpl in GA; try discriminate; [injection GA as E; rewrite (He _ _ E)|]; reflexivity.
Qed.

Lemma wf_gmap_inv {A A' B B'} (fn : A -> A') (fe : B -> B') (g : lgraph A B) : wf (gmap fn fe g) -> wf g.
Proof.
  intros (W1 & W2 & W3). rewrite node_ids_gmap in W1, W2. split; [exact W1|]. split.
  - intros a b x I. apply (W2 a b (fe x)). unfold gmap. simpl. apply in_map_iff. exists (a, b, x). auto.
  - intros l1 a b x l2 E. specialize (W3 (gedges (gmap fn fe (LG [] l1))) a b (fe x) (gedges (gmap fn fe (LG [] l2)))).
    unfold gmap in W3. simpl in W3. rewrite E, map_app in W3. specialize (W3 eq_refl). rewrite !find_edge_map in W3.
    destruct W3 as [F1 F2]. destruct (find_edge a b l1); [discriminate|]. destruct (find_edge a b l2); [discriminate|]. auto.
Qed.

Lemma relabel_gmap {A A' B B'} (f : N -> N) (fn : A -> A') (fe : B -> B') (g : lgraph A B) :
  relabel f (gmap fn fe g) = gmap fn fe (relabel f g).
Proof. unfold relabel, gmap. simpl. rewrite !map_map. f_equal. apply map_ext. intros [[u v] x]. reflexivity. Qed.

Lemma xn_of_inj a b : xn_of a = xn_of b -> a = b.
Proof.
  destruct a as [el ch am [[[x1 x2] x3]|] G H], b as [el' ch' am' [[[y1 y2] y3]|] G' H']; simpl; intros E; inversion E; reflexivity.
Qed.

Lemma is_hh_emb (g : its) u v : is_hh_x (emb g) u v = is_hh g u v.
Proof. unfold is_hh_x, is_hh, is_h_x, is_h, emb. rewrite !label_gmap. destruct (label g u); destruct (label g v); reflexivity. Qed.

Lemma label_emb (g : its) n : label (emb g) n = option_map xn_of (label g n).
Proof. apply label_gmap. Qed.
Lemma adj_emb (g : its) u v : adj (emb g) u v = option_map (fun e : iedge => (e, @None bool)) (adj g u v).
Proof. apply adj_gmap. Qed.
Lemma emb_relabel (f : N -> N) (g : its) : emb (relabel f g) = relabel f (emb g).
Proof. symmetry. apply relabel_gmap. Qed.

(** the atoms on the bonds of [emb g] that pass a test, stated on [g] *)
Lemma ends_emb (p : N * N * xedge -> bool) (q : N -> N -> iedge -> bool) (g : its) k :
  (forall a b x, p (a, b, (x, None)) = q a b x) ->
  (LGraph.mem k (ends (filter p (gedges (emb g)))) = true <-> exists a b x, In (a, b, x) (gedges g) /\ q a b x = true /\ (k = a \/ k = b)).
Proof.
  intros Hpq. rewrite mem_ends. unfold emb, gmap. simpl. split.
  - intros (a & b & y & I & Hk). apply filter_In in I. destruct I as [I P]. apply in_map_iff in I.
    destruct I as ([[a' b'] x] & E & I). injection E as -> -> <-. exists a, b, x. rewrite <- Hpq. auto.
  - intros (a & b & x & I & Q & Hk). exists a, b, (x, None). split; [|exact Hk].
    apply filter_In. split; [apply in_map_iff; exists (a, b, x); auto|rewrite Hpq; exact Q].
Qed.
