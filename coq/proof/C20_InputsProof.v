(** C20 — the flow defaults (model/C20_Inputs.v): through hypergraph_to_pr_inputs an edge keeps the flow it was GIVEN — also an
    explicit 0 or a negative number — and gets 1 only when the mapping is None or has no entry for it; loaded directly, an edge
    without an entry gets 0; entries for unknown edge ids are ignored. *)
From Coq Require Import ZArith List Lia.
Import ListNotations.
From SK Require Import model.C20_Inputs.

Lemma assocZ_map_self (f : N -> Z) eids e : In e eids -> assocZ e (map (fun x => (x, f x)) eids) = Some (f e).
Proof.
  induction eids as [|x eids IH]; intros Hin; [destruct Hin|]. simpl.
  destruct (N.eqb x e) eqn:E; [apply N.eqb_eq in E; now subst|].
  destruct Hin as [->|Hin]; [rewrite N.eqb_refl in E; discriminate|auto].
Qed.

Lemma nth_map_lt {A B} (f : A -> B) l k d d' : (k < length l)%nat -> nth k (map f l) d = f (nth k l d').
Proof. intros H. rewrite (nth_indep _ d (f d')) by now rewrite map_length. apply map_nth. Qed.

Lemma nth_seq_map k n d : (k < n)%nat -> nth k (map N.of_nat (seq 0 n)) d = N.of_nat k.
Proof.
  intros H. rewrite (nth_map_lt N.of_nat (seq 0 n) k d 0%nat) by (rewrite seq_length; exact H).
  now rewrite seq_nth.
Qed.

Theorem flow_via_hg_spec nedges given k : (k < nedges)%nat ->
  nth k (flow_via_hg nedges given) 0%Z =
  match given with
  | None => 1%Z
  | Some g => match assocZ (N.of_nat k) g with Some f => f | None => 1%Z end
  end.
Proof.
  intros Hk. unfold flow_via_hg, load_flow.
  set (eids := map N.of_nat (seq 0 nedges)).
  assert (Hlen : length eids = nedges) by (unfold eids; now rewrite map_length, seq_length).
  rewrite (nth_map_lt _ eids k 0%Z 0%N) by (rewrite Hlen; exact Hk).
  unfold eids at 1. rewrite nth_seq_map by exact Hk.
  unfold pr_inputs_flow. rewrite assocZ_map_self.
  - reflexivity.
  - unfold eids. apply in_map, in_seq. lia.
Qed.

Theorem flow_direct_spec nedges flow k : (k < nedges)%nat ->
  nth k (flow_direct nedges flow) 0%Z = match assocZ (N.of_nat k) flow with Some f => f | None => 0%Z end.
Proof.
  intros Hk. unfold flow_direct, load_flow.
  rewrite (nth_map_lt _ (map N.of_nat (seq 0 nedges)) k 0%Z 0%N) by (rewrite map_length, seq_length; exact Hk).
  now rewrite nth_seq_map.
Qed.

Lemma flow_lengths nedges given flow :
  length (flow_via_hg nedges given) = nedges /\ length (flow_direct nedges flow) = nedges.
Proof. unfold flow_via_hg, flow_direct, load_flow. now rewrite !map_length, !seq_length. Qed.

(** non-vacuity: three edges; through the converter an explicit 0 stays 0, a missing entry becomes 1, an entry for an unknown edge is
    ignored; loaded directly the missing entry becomes 0 *)
Example flow_defaults_example :
  flow_via_hg 3 (Some [(0%N, 0%Z); (2%N, 5%Z); (7%N, 9%Z)]) = [0%Z; 1%Z; 5%Z] /\
  flow_via_hg 3 None = [1%Z; 1%Z; 1%Z] /\
  flow_direct 3 [(0%N, 0%Z); (2%N, 5%Z); (7%N, 9%Z)] = [0%Z; 0%Z; 5%Z].
Proof. vm_compute. repeat split; reflexivity. Qed.
