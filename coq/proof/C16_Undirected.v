(** C16 — orienting an undirected presentation of an exported bipartite graph gives the exported graph back:
    _as_bipartite (model/C16_Undirected.v) on ANY sequence of the incidences, each with its endpoints in either order,
    rebuilds exactly the DiGraph hypergraph_to_bipartite exported (roles exported); hence export -> undirected -> _as_bipartite
    -> import is the round trip of C16_bipartite_roundtrip. *)
From stdpp Require Import gmap strings sets pretty sorting.
From SK Require Import lib.Tok model.C15_Model proof.C15_Proof model.C16_Model proof.C16_Defs proof.C16_Common proof.C16_BipA proof.C16_BipB
                       model.C16_Undirected.
Local Open Scope string_scope.
Local Open Scope list_scope.

Definition flipb (b : bool) (e : nid * nid * barc) : nid * nid * barc := if b then (e.1.2, e.1.1, e.2) else e.

Section orient.
  Context (fl : bflags) (H : net) (G : bgraph) (Ms Rs : gmap string nid).
  Context (HS : bip_spec fl H G Ms Rs) (Hrole : f_role fl = true).

  Lemma rxn_node_is_rxn e n : Rs !! e = Some n → node_is_rxn (b_nodes G) n = true.
  Proof.
    intros He. destruct (proj1 (bs_Rdom _ _ _ _ _ HS e)) as [rx Hrx]; [eauto|].
    unfold node_is_rxn. rewrite (node_of_rxn fl H G Ms Rs HS e rx n Hrx He).
    apply orb_true_iff. left. by apply bool_decide_eq_true.
  Qed.
  Lemma sp_node_not_rxn s n : Ms !! s = Some n → node_is_rxn (b_nodes G) n = false.
  Proof.
    intros Hs. unfold node_is_rxn. rewrite (node_of_species fl H G Ms Rs HS s n Hs).
    apply orb_false_iff. split; [by apply bool_decide_eq_false|]. apply andb_false_iff. left. by apply bool_decide_eq_false.
  Qed.

  (** an incidence of the exported graph, endpoints in either order, is oriented back to its arc *)
  Lemma orient_flip b u v a : b_arcs G !! (u, v) = Some a → orient_edge (b_nodes G) (flipb b (u, v, a)) = (u, v).
  Proof.
    intros (inc & e & rx & s & c & ns & nr & Hrx & Hr & Hs & Hc & Hk & ->)%(bs_arcs _ _ _ _ _ HS).
    (* a reactant arc runs species -> reaction, a product arc reaction -> species *)
    destruct inc; injection Hk as -> ->; destruct b; cbn [flipb fst snd]; unfold orient_edge;
      rewrite ?(rxn_node_is_rxn e nr Hr), ?(sp_node_not_rxn s ns Hs); unfold arc_attrs; rewrite Hrole; cbn;
      by rewrite ?bool_decide_eq_false_2, ?bool_decide_eq_true_2 by done.
  Qed.

  Lemma orient_presentation (bs : list bool) (L : list (nid * nid * barc)) :
    (∀ e, e ∈ L → b_arcs G !! e.1 = Some e.2) → length bs = length L →
    (λ e, (orient_edge (b_nodes G) e, e.2)) <$> zip_with flipb bs L = L.
  Proof.
    revert bs. induction L as [|[[u v] a] L IH]; intros [|b bs] HL Hlen; try done.
    cbn [zip_with fmap list_fmap]. rewrite (orient_flip b u v a) by (apply (HL (u, v, a)); by left).
    f_equal; [by destruct b|]. apply IH; [|by injection Hlen]. intros e He. apply HL. by right.
  Qed.

  (** the DiGraph comes back from ANY undirected presentation of its arcs *)
  Lemma as_bipartite_undirected_export (bs : list bool) (l : list (nid * nid * barc)) :
    length bs = length (map_to_list (b_arcs G)) → l ≡ₚ zip_with flipb bs (map_to_list (b_arcs G)) →
    as_bipartite_undirected (UGraph (b_nodes G) l) = G.
  Proof.
    intros Hlen Hperm. unfold as_bipartite_undirected. cbn [u_nodes u_edges].
    set (nodes := b_nodes G). set (L := map_to_list (b_arcs G)) in *.
    assert (foldl (orient_step nodes) ∅ l = b_arcs G) as ->; [|by destruct G].
    assert ((λ e, (orient_edge nodes e, e.2)) <$> l ≡ₚ L) as Hl.
    { rewrite Hperm. unfold nodes. rewrite (orient_presentation bs L); [done| |done].
      intros [[u v] a] He. cbn. by apply elem_of_map_to_list in He. }
    assert (((λ e, (orient_edge nodes e, e.2)) <$> l).*1 = orient_edge nodes <$> l) as Hfst by (by rewrite <-list_fmap_compose).
    assert (NoDup (orient_edge nodes <$> l)) as Hnd.
    { rewrite <-Hfst, Hl. apply NoDup_fst_map_to_list. }
    (* distinct oriented keys never meet an existing arc *)
    rewrite (foldl_insert_fresh_empty _ (orient_edge nodes) snd); [|done|].
    - rewrite (list_to_map_proper _ L); [apply list_to_map_to_list|by rewrite Hfst|done].
    - intros m e _ Hm. unfold orient_step. by rewrite Hm.
  Qed.
End orient.

(** export -> any undirected presentation -> _as_bipartite -> import: the round trip of C16_bipartite_roundtrip *)
Lemma undirected_roundtrip (fl : bflags) (ifl : iflags) (H : net) (bs : list bool) (l : list (nid * nid * barc)) :
  wf16 H → f_eid fl = true → f_stoich fl = true → f_role fl = true → bip_names_ok fl H →
  length bs = length (map_to_list (b_arcs (hypergraph_to_bipartite fl H))) →
  l ≡ₚ zip_with flipb bs (map_to_list (b_arcs (hypergraph_to_bipartite fl H))) →
  as_bipartite_undirected (UGraph (b_nodes (hypergraph_to_bipartite fl H)) l) = hypergraph_to_bipartite fl H ∧
  edges (bipartite_to_hypergraph ifl (as_bipartite_undirected (UGraph (b_nodes (hypergraph_to_bipartite fl H)) l))).1 = edges H.
Proof.
  intros Hwf Heid Hsto Hrole Hnames Hlen Hperm. pose proof Hwf as (_ & Hwsp & _ & _).
  destruct (export_spec fl H Hwsp Hnames) as (Ms & Rs & HS).
  pose proof (as_bipartite_undirected_export fl H _ Ms Rs HS Hrole bs l Hlen Hperm) as Heq.
  split; [exact Heq|]. rewrite Heq. by apply bipartite_roundtrip.
Qed.

(** non-vacuity: a catalyst (two incidences between S:A and R:r_1), every incidence flipped, sequence reversed *)
Definition exu_net : net :=
  mk_net [] [(None, "r", [("A", 2%Z)], [("B", 1%Z); ("A", 1%Z)]); (Some "x", "q", [("B", 1%Z)], [("C", 12%Z)])] [].
Definition exu_fl : bflags := BFlags (Some "S:") (Some "R:") 0 1 true true true false true false.
Definition exu_G : bgraph := hypergraph_to_bipartite exu_fl exu_net.
Definition exu_l : list (nid * nid * barc) := reverse (flipb true <$> map_to_list (b_arcs exu_G)).
Example ex_undirected_nonvacuous :
  length exu_l = 5%nat ∧
  tbgraph (as_bipartite_undirected (UGraph (b_nodes exu_G) exu_l)) = tbgraph exu_G ∧
  bool_decide (edges (bipartite_to_hypergraph (default_iflags true) (as_bipartite_undirected (UGraph (b_nodes exu_G) exu_l))).1 = edges exu_net) = true.
Proof. split_and!; by vm_compute. Qed.
(** without `role` every incidence is taken for a reactant: the product arcs are turned around *)
Definition exu_G_norole : bgraph := hypergraph_to_bipartite (BFlags (Some "S:") (Some "R:") 0 1 true false true false true false) exu_net.
Example ex_undirected_role_needed :
  tbgraph (as_bipartite_undirected (UGraph (b_nodes exu_G_norole) (map_to_list (b_arcs exu_G_norole)))) ≠ tbgraph exu_G_norole.
Proof. intros Hq. vm_compute in Hq. discriminate Hq. Qed.
