(** C03 — the hydrogen bookkeeping of _strip_explicit_h on one side graph (left or right): after any sequence of
    strip steps, a heavy atom's hcount has grown by exactly the number of bonds that joined it to the stripped
    hydrogens, nothing else about the kept atoms changed, and the bonds are those avoiding the stripped atoms. *)
From Coq Require Import List NArith ZArith Bool Lia.
From SK Require Import lib.Tok lib.LGraph model.C03_Model proof.C03_Proof proof.C03_Glue proof.C03_Backward proof.C03_Skeleton.
Import ListNotations.
Local Open Scope Z_scope.

Definition occ (x : N) (l : list N) : Z := Z.of_nat (length (filter (N.eqb x) l)).

Record mskel (g0 g : molg) (R : list N) : Prop := {
  ms_nodes : Forall2 (mrel (sum_cnt (gedges g0) R)) (gnodes g) (filter (mkeepn R) (gnodes g0));
  ms_edges : gedges g = filter (mkeepe R) (gedges g0) }.

(** * list lemmas *)
Lemma Forall2_map_self {A} (R : A -> A -> Prop) (f : A -> A) l : (forall q, In q l -> R (f q) q) -> Forall2 R (map f l) l.
Proof. induction l as [|x r IH]; simpl; intros H; constructor; auto. Qed.
Lemma Forall2_self {A} (R : A -> A -> Prop) l : (forall q, R q q) -> Forall2 R l l.
Proof. intros H. induction l; constructor; auto. Qed.
Lemma Forall2_impl_in {A B} (R R' : A -> B -> Prop) l1 l2 :
  Forall2 R l1 l2 -> (forall p q, In q l2 -> R p q -> R' p q) -> Forall2 R' l1 l2.
Proof. induction 1 as [|p q l1 l2 Hpq _ IH]; intros H; constructor; [apply H; simpl; auto|apply IH; intros; apply H; simpl; auto]. Qed.
Lemma Forall2_comp {A} (R1 R0 R : A -> A -> Prop) l2 l1 l0 :
  (forall p q r, R1 p q -> R0 q r -> R p r) -> Forall2 R1 l2 l1 -> Forall2 R0 l1 l0 -> Forall2 R l2 l0.
Proof.
  intros Hc H. revert l0. induction H as [|p q l2 l1 Hpq _ IH]; intros l0 H0; inversion H0; subst; constructor; eauto.
Qed.
Lemma NoDup_map_filter {A} (c : N * A -> bool) l : NoDup (map fst l) -> NoDup (map fst (filter c l)).
Proof.
  induction l as [|x r IH]; simpl; intros H; [constructor|]. inversion H as [|? ? N1 N2]; subst.
  destruct (c x); simpl; [constructor|]; auto.
  intros I. apply N1. apply in_map_iff in I. destruct I as (y & E & I). apply filter_In in I. apply in_map_iff. exists y. tauto.
Qed.

Lemma occ_cons x y l : occ x (y :: l) = (if N.eqb x y then 1 else 0) + occ x l.
Proof. unfold occ. simpl. destruct (N.eqb x y); simpl length; lia. Qed.

Lemma mrel_comp d1 d0 p q r : mrel d1 p q -> mrel d0 q r -> mrel (fun k => d1 k + d0 k) p r.
Proof.
  unfold mrel, is_Hm. intros (A1 & A2 & A3 & A4 & A5) (B1 & B2 & B3 & B4 & B5).
  repeat split; try congruence. rewrite A5, B5, B1, B2. destruct (N.eqb (m_el (snd r)) EL_H); lia.
Qed.
Lemma mrel_ext d d' p q : d (fst q) = d' (fst q) -> mrel d p q -> mrel d' p q.
Proof. unfold mrel. intros E (A1 & A2 & A3 & A4 & A5). rewrite <- E. repeat split; assumption. Qed.
Lemma mrel_refl0 q : mrel (fun _ => 0) q q.
Proof. unfold mrel. repeat split. destruct (is_Hm (snd q)); symmetry; apply Z.add_0_r. Qed.

(** * neighbours and edge counts *)
Lemma occ_nbrs (g : molg) h x : x <> h -> occ x (nbrs g h) = cnt (gedges g) h x.
Proof.
  intros Hne. unfold occ, cnt, nbrs. f_equal. induction (gedges g) as [|[[a b] o] r IH]; [reflexivity|].
  cbn [flat_map filter fst snd]. rewrite filter_app, app_length, IH. clear IH.
  assert (E : length (filter (N.eqb x) (if N.eqb a h then [b] else if N.eqb b h then [a] else [])) = if peq a b h x then 1%nat else 0%nat).
  { unfold peq. destruct (N.eqb_spec a h) as [->|Na].
    - cbn [filter andb orb]. destruct (N.eqb_spec x b) as [->|Nb].
      + rewrite N.eqb_refl. reflexivity.
      + destruct (N.eqb_spec b x); [congruence|]. destruct (N.eqb_spec h x); [congruence|]. reflexivity.
    - destruct (N.eqb_spec b h) as [->|Nb].
      + cbn [filter andb orb]. destruct (N.eqb_spec x a) as [->|Nx].
        * rewrite N.eqb_refl. reflexivity.
        * destruct (N.eqb_spec a x); [congruence|]. reflexivity.
      + cbn [filter andb orb]. rewrite andb_false_r. reflexivity. }
  rewrite E. destruct (peq a b h x); reflexivity.
Qed.

Lemma cnt_filter_keep es R h x : ~ In h R -> ~ In x R -> cnt (filter (mkeepe R) es) h x = cnt es h x.
Proof.
  intros Hh Hx. unfold cnt. f_equal. f_equal. induction es as [|[[a b] o] r IH]; [reflexivity|].
  cbn [filter fst snd]. unfold mkeepe at 1. cbn [fst snd].
  destruct (peq a b h x) eqn:Ep.
  - assert (mem a R = false /\ mem b R = false) as [Ea Eb].
    { destruct (proj1 (peq_spec a b h x) Ep) as [[-> ->]|[-> ->]]; split;
        apply mem_false; assumption. }
    rewrite Ea, Eb. cbn [negb andb filter fst snd]. rewrite Ep. cbn [length]. rewrite IH. reflexivity.
  - destruct (negb (mem a R) && negb (mem b R)); cbn [filter fst snd]; rewrite ?Ep; exact IH.
Qed.

(** * the inner fold: bump every non-hydrogen neighbour *)
Definition bstep (pid : option N) (g' : molg) (x : N) : molg := if is_H_m g' x then g' else upd_node g' x (bump_m pid).

Lemma bstep_rel pid (g : molg) x : NoDup (node_ids g) ->
  gedges (bstep pid g x) = gedges g /\ node_ids (bstep pid g x) = node_ids g /\
  Forall2 (mrel (fun k => if N.eqb k x then 1 else 0)) (gnodes (bstep pid g x)) (gnodes g).
Proof.
  intros Hnd. unfold bstep. destruct (is_H_m g x) eqn:EH.
  - split; [reflexivity|]. split; [reflexivity|].
    apply Forall2_impl_in with (R := fun p q => p = q); [apply Forall2_self; reflexivity|].
    intros p [k a] I ->. unfold mrel. cbn [fst snd]. repeat split.
    destruct (is_Hm a) eqn:Ea; [lia|]. destruct (N.eqb_spec k x) as [->|]; [|lia].
    unfold is_H_m, label in EH. rewrite (assoc_nodup_in x (gnodes g) a Hnd I) in EH. unfold is_Hm in Ea. congruence.
  - split; [reflexivity|]. split; [apply ids_upd|].
    unfold upd_node; cbn [gnodes]. apply Forall2_map_self. intros [k a] I. cbn [fst snd].
    destruct (N.eqb_spec k x) as [->|Nk]; unfold mrel; cbn [fst snd bump_m m_el m_aro m_ch m_hc].
    + rewrite N.eqb_refl. repeat split.
      unfold is_H_m, label in EH. rewrite (assoc_nodup_in x (gnodes g) a Hnd I) in EH. unfold is_Hm. rewrite EH. lia.
    + repeat split. destruct (N.eqb_spec k x); [congruence|]. destruct (is_Hm a); lia.
Qed.

Lemma bump_fold_rel pid ns : forall g : molg, NoDup (node_ids g) ->
  gedges (fold_left (bstep pid) ns g) = gedges g /\ node_ids (fold_left (bstep pid) ns g) = node_ids g /\
  Forall2 (mrel (fun k => occ k ns)) (gnodes (fold_left (bstep pid) ns g)) (gnodes g).
Proof.
  induction ns as [|x r IH]; intros g Hnd.
  - simpl. split; [reflexivity|]. split; [reflexivity|]. apply Forall2_self. intros q. apply mrel_refl0.
  - cbn [fold_left]. destruct (bstep_rel pid g x Hnd) as (E1 & E2 & E3).
    assert (Hnd1 : NoDup (node_ids (bstep pid g x))) by (rewrite E2; exact Hnd).
    destruct (IH _ Hnd1) as (F1 & F2 & F3). split; [congruence|]. split; [congruence|].
    apply (Forall2_comp _ _ _ _ _ _ (fun p q r0 A B => mrel_ext _ (fun k => occ k (x :: r)) p r0 (eq_sym (eq_trans (occ_cons _ _ _) (Z.add_comm _ _))) (mrel_comp _ _ p q r0 A B)) F3 E3).
Qed.

(** * one strip step *)
Lemma remove_node_nodup {A B} (g : lgraph A B) h : NoDup (node_ids g) -> NoDup (node_ids (remove_node g h)).
Proof. unfold node_ids, remove_node; cbn [gnodes]. apply NoDup_map_filter. Qed.

Lemma strip_m_nodup g h pid : NoDup (node_ids g) -> NoDup (node_ids (strip_m g h pid)).
Proof.
  intros Hnd. unfold strip_m. destruct (has_node g h); [|exact Hnd]. apply remove_node_nodup.
  change (fold_left _ (nbrs g h) g) with (fold_left (bstep pid) (nbrs g h) g).
  rewrite (proj1 (proj2 (bump_fold_rel pid (nbrs g h) g Hnd))). exact Hnd.
Qed.

Lemma mskel_ids g0 g R : mskel g0 g R -> node_ids g = map fst (filter (mkeepn R) (gnodes g0)).
Proof. intros [S1 _]. unfold node_ids. apply (Forall2_ids _ _ _ (fun p q (H : mrel _ p q) => proj1 H) S1). Qed.

Lemma mskel_ids_filter g0 g R : mskel g0 g R -> node_ids g = filter (fun n => negb (mem n R)) (node_ids g0).
Proof. intros S. rewrite (mskel_ids g0 g R S). apply (ids_filter (fun n => negb (mem n R))). Qed.
Lemma mskel_node_kept g0 g R h : mskel g0 g R -> has_node g h = true -> ~ In h R.
Proof.
  intros S Hh C. apply has_node_in in Hh. rewrite (mskel_ids_filter g0 g R S) in Hh. apply filter_In in Hh.
  rewrite (proj2 (mem_spec h R) C) in Hh. destruct Hh; discriminate.
Qed.

Lemma mskel_strip_exact g0 g R h pid : NoDup (node_ids g) -> mskel g0 g R ->
  mskel g0 (strip_m g h pid) (if has_node g h then h :: R else R).
Proof.
  intros Hnd S. unfold strip_m. destruct (has_node g h) eqn:Eh; [|exact S].
  change (fold_left _ (nbrs g h) g) with (fold_left (bstep pid) (nbrs g h) g).
  destruct (bump_fold_rel pid (nbrs g h) g Hnd) as (F1 & F2 & F3). pose proof S as [S1 S2].
  pose proof (mskel_node_kept g0 g R h S Eh) as HhR.
  constructor.
  - unfold remove_node; cbn [gnodes].
    replace (filter (mkeepn (h :: R)) (gnodes g0))
      with (filter (fun p : N * mnode => negb (N.eqb (fst p) h)) (filter (mkeepn R) (gnodes g0))).
    2:{ rewrite filter_filter. apply filter_ext_all. intros p. unfold mkeepn. simpl. destruct (N.eqb (fst p) h), (mem (fst p) R); reflexivity. }
    assert (C : Forall2 (mrel (fun k => occ k (nbrs g h) + sum_cnt (gedges g0) R k)) (gnodes (fold_left (bstep pid) (nbrs g h) g))
                        (filter (mkeepn R) (gnodes g0))).
    { exact (Forall2_comp _ _ _ _ _ _ (fun p q r A B => mrel_comp _ _ p q r A B) F3 S1). }
    apply Forall2_impl_in with (R := mrel (fun k => occ k (nbrs g h) + sum_cnt (gedges g0) R k)).
    + apply Forall2_filter; [intros p q Hpq; rewrite (proj1 Hpq); reflexivity|exact C].
    + intros p q Iq Hpq. apply filter_In in Iq. destruct Iq as [Iq Nh]. apply filter_In in Iq. destruct Iq as [_ NR].
      apply negb_true_iff in Nh. apply N.eqb_neq in Nh. unfold mkeepn in NR. apply negb_true_iff in NR.
      assert (NR' : ~ In (fst q) R) by (intros C'; apply mem_spec in C'; congruence).
      apply (mrel_ext (fun k => occ k (nbrs g h) + sum_cnt (gedges g0) R k)); [|exact Hpq].
      cbn [sum_cnt fold_right]. fold (sum_cnt (gedges g0) R (fst q)).
      rewrite (occ_nbrs g h (fst q) Nh), S2, (cnt_filter_keep (gedges g0) R h (fst q) HhR NR'). reflexivity.
  - unfold remove_node; cbn [gedges]. rewrite F1, S2, filter_filter. apply filter_ext_all. intros [[a b] o]. unfold mkeepe. simpl.
    destruct (N.eqb a h), (N.eqb b h), (mem a R), (mem b R); reflexivity.
Qed.

(** * invariants carried through the folds *)
Definition mgood (g0 g : molg) : Prop := NoDup (node_ids g) /\ exists R, mskel g0 g R.

Lemma mgood_strip g0 g h pid : mgood g0 g -> mgood g0 (strip_m g h pid).
Proof.
  unfold mgood. intros [Hnd [R S]]. split; [apply strip_m_nodup; exact Hnd|].
  eexists. exact (mskel_strip_exact g0 g R h pid Hnd S).
Qed.

Definition tl_ (t : triple) : molg := snd (fst t).
Definition tr_ (t : triple) : molg := snd t.

Lemma shared_fold_good gl gr hs : forall (t : triple) pid, mgood gl (tl_ t) -> mgood gr (tr_ t) ->
  mgood gl (tl_ (fst (fold_left (fun (st : triple * N) h =>
         let '(rc, l, r, pid) := st in
         (strip_i rc h (Some pid), strip_m l h (Some pid), strip_m r h (Some pid), N.succ pid)) hs (t, pid)))) /\
  mgood gr (tr_ (fst (fold_left (fun (st : triple * N) h =>
         let '(rc, l, r, pid) := st in
         (strip_i rc h (Some pid), strip_m l h (Some pid), strip_m r h (Some pid), N.succ pid)) hs (t, pid)))).
Proof.
  intros t pid Gl Gr. apply (fold_left_inv _ (fun st => mgood gl (tl_ (fst st)) /\ mgood gr (tr_ (fst st)))); [|split; assumption].
  intros [[[rc l] r] p] h _ [A B]. unfold tl_, tr_ in *. cbn [fst snd] in *. split; apply mgood_strip; assumption.
Qed.

Lemma step3_rc_sides hs : forall (t t' : triple),
  fold_left (fun (st : option triple) h =>
      match st with
      | None => None
      | Some (rc, l, r) => match fully_removable l r h with
                           | Some true => Some (strip_i rc h None, l, r) | Some false => st | None => None end
      end) hs (Some t) = Some t' -> tl_ t' = tl_ t /\ tr_ t' = tr_ t.
Proof.
  intros t t'. apply (step3_fold_inv (fun t0 => tl_ t0 = tl_ t /\ tr_ t0 = tr_ t) (fun rc l r h => (strip_i rc h None, l, r))); auto.
Qed.

Lemma step3_l_good gl hs : forall (t t' : triple),
  mgood gl (tl_ t) ->
  fold_left (fun (st : option triple) h =>
      match st with
      | None => None
      | Some (rc, l, r) => match fully_removable l r h with
                           | Some true => Some (rc, strip_m l h None, r) | Some false => st | None => None end
      end) hs (Some t) = Some t' -> mgood gl (tl_ t') /\ tr_ t' = tr_ t.
Proof.
  intros t t' G. apply (step3_fold_inv (fun t0 => mgood gl (tl_ t0) /\ tr_ t0 = tr_ t) (fun rc l r h => (rc, strip_m l h None, r))); [|auto].
  intros rc l r h _ [G0 E0] _. split; [|exact E0]. unfold tl_ in *. cbn [fst snd] in *. apply mgood_strip; auto.
Qed.

Lemma step3_r_good gr hs : forall (t t' : triple),
  mgood gr (tr_ t) ->
  fold_left (fun (st : option triple) h =>
      match st with
      | None => None
      | Some (rc, l, r) => match fully_removable l r h with
                           | Some true => Some (rc, l, strip_m r h None) | Some false => st | None => None end
      end) hs (Some t) = Some t' -> mgood gr (tr_ t') /\ tl_ t' = tl_ t.
Proof.
  intros t t' G. apply (step3_fold_inv (fun t0 => mgood gr (tr_ t0) /\ tl_ t0 = tl_ t) (fun rc l r h => (rc, l, strip_m r h None))); [|auto].
  intros rc l r h _ [G0 E0] _. split; [|exact E0]. unfold tr_ in *. cbn [fst snd] in *. apply mgood_strip; auto.
Qed.

Lemma mskel_nil (g : molg) : mskel g g [].
Proof.
  constructor.
  - rewrite (filter_true (mkeepn [])) by reflexivity. apply Forall2_self. intros q. apply mrel_refl0.
  - rewrite (filter_true (mkeepe [])) by reflexivity. reflexivity.
Qed.

Lemma mgood_init (g : molg) : NoDup (node_ids g) -> mgood g g.
Proof. intros Hnd. split; [exact Hnd|]. exists []. apply mskel_nil. Qed.

(** * both sides of the prepared rule *)
Theorem strip_sides (rc0 : its) (l0 r0 : molg) rc l r :
  NoDup (node_ids l0) -> NoDup (node_ids r0) -> strip_explicit_h rc0 l0 r0 = Some (rc, l, r) ->
  mgood (init_m l0) l /\ mgood (init_m r0) r.
Proof.
  intros Hl Hr H. unfold strip_explicit_h in H. cbn [fst snd] in H.
  assert (Hl' : NoDup (node_ids (init_m l0))) by (unfold node_ids, init_m, map_nodes; cbn [gnodes]; rewrite map_map; exact Hl).
  assert (Hr' : NoDup (node_ids (init_m r0))) by (unfold node_ids, init_m, map_nodes; cbn [gnodes]; rewrite map_map; exact Hr).
  destruct (shared_h (init_m l0) (init_m r0)) as [hs|] eqn:Eh; [|discriminate].
  unfold strip_shared in H.
  destruct (shared_fold_good (init_m l0) (init_m r0) (sort_N hs) (init_i rc0, init_m l0, init_m r0) 1%N
              (mgood_init _ Hl') (mgood_init _ Hr')) as [G2l G2r].
  match type of H with context [step3_rc ?x] => set (t2 := x) in * end.
  destruct (step3_rc t2) as [t3|] eqn:E3; [|discriminate].
  destruct (step3_l t3) as [t4|] eqn:E4; [|discriminate].
  destruct (step3_rc_sides _ _ _ E3) as [A3 B3].
  unfold step3_l in E4. rewrite <- A3 in G2l. rewrite <- B3 in G2r.
  destruct (step3_l_good (init_m l0) _ t3 t4 G2l E4) as [G4l B4]. rewrite <- B4 in G2r.
  unfold step3_r in H.
  destruct (step3_r_good (init_m r0) _ t4 (rc, l, r) G2r H) as [G5r A5].
  unfold tl_, tr_ in *. cbn [fst snd] in *. rewrite A5. split; assumption.
Qed.

(** * refresh_types copies the sides' hydrogen counts into the rule *)
Lemma refresh_types_counts rc l r rc' : refresh_types rc l r = Some rc' ->
  forall k a, In (k, a) (gnodes rc') ->
  exists la ra, label l k = Some la /\ label r k = Some ra /\ a_hc (iG a) = m_hc la /\ a_hc (iH a) = m_hc ra.
Proof.
  unfold refresh_types.
  match goal with |- context [fold_right ?f _ _] => set (F := f) end.
  destruct (fold_right F (Some []) (gnodes rc)) as [ns|] eqn:E; [|discriminate]. intros H. inversion H; subst. cbn [gnodes].
  clear H. revert ns E. induction (gnodes rc) as [|[k0 a0] r0 IH]; intros ns E k a I.
  - simpl in E. inversion E; subst. destruct I.
  - cbn [fold_right] in E. destruct (fold_right F (Some []) r0) as [ns0|]; [|unfold F in E; discriminate].
    unfold F at 1 in E. cbn [fst snd] in E.
    destruct (label l k0) as [la|] eqn:El; [|discriminate]. destruct (label r k0) as [ra|] eqn:Er; [|discriminate].
    inversion E; subst. destruct I as [I|I].
    + inversion I; subst. exists la, ra. repeat split; assumption.
    + exact (IH ns0 eq_refl k a I).
Qed.

(** * the theorem: hydrogen counts of the rule prepared in the default mode *)
Theorem synrule_default_counts (tpl rc : its) (l r : molg) :
  nodupb (node_ids tpl) = true -> synrule tpl true = Some (rc, l, r) ->
  exists Rl Rr : list N,
    (Forall2 (mrel (sum_cnt (gedges (fst (its_decompose (standardize_hydrogen tpl)))) Rl)) (gnodes l)
             (filter (mkeepn Rl) (gnodes (init_m (fst (its_decompose (standardize_hydrogen tpl)))))) /\
     gedges l = filter (mkeepe Rl) (gedges (fst (its_decompose (standardize_hydrogen tpl))))) /\
    (Forall2 (mrel (sum_cnt (gedges (snd (its_decompose (standardize_hydrogen tpl)))) Rr)) (gnodes r)
             (filter (mkeepn Rr) (gnodes (init_m (snd (its_decompose (standardize_hydrogen tpl)))))) /\
     gedges r = filter (mkeepe Rr) (gedges (snd (its_decompose (standardize_hydrogen tpl))))) /\
    (forall k a, In (k, a) (gnodes rc) ->
       exists la ra, label l k = Some la /\ label r k = Some ra /\ a_hc (iG a) = m_hc la /\ a_hc (iH a) = m_hc ra).
Proof.
  intros Hnd H. apply nodupb_NoDup in Hnd. destruct (synrule_default_inv tpl rc l r H) as (rc1 & Es & Er). clear H.
  unfold its_decompose. cbn [fst snd].
  set (rc0 := standardize_hydrogen tpl) in *. set (l0 := dec_side iG eG rc0) in *. set (r0 := dec_side iH eH rc0) in *.
  assert (Hl : NoDup (node_ids l0)).
  { unfold node_ids, l0, dec_side, rc0, standardize_hydrogen, map_nodes; cbn [gnodes]. rewrite !map_map. exact Hnd. }
  assert (Hr : NoDup (node_ids r0)).
  { unfold node_ids, r0, dec_side, rc0, standardize_hydrogen, map_nodes; cbn [gnodes]. rewrite !map_map. exact Hnd. }
  destruct (strip_sides rc0 l0 r0 rc1 l r Hl Hr Es) as [[_ [Rl [L1 L2]]] [_ [Rr [R1 R2]]]].
  exists Rl, Rr. split; [split; [exact L1|exact L2]|]. split; [split; [exact R1|exact R2]|].
  exact (refresh_types_counts rc1 l r rc Er).
Qed.
