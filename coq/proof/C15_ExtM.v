(** C15 — merge of a duck-typed other (model/C15_Ext.v §5). *)
From stdpp Require Import gmap strings sets.
From SK Require Import model.C15_Model model.C15_Ext proof.C15_Proof proof.C15_Ext.
Local Open Scope string_scope.

Definition raw_rxn (re : raw_edge) : rxn :=
  Rxn (norm_rule re.1.1.2) (normalize_items re.1.2) (normalize_items re.2).

(** one raw edge: [merge_add] on its normalised sides *)
Lemma merge_raw_one_spec prefix s re s2 er2 :
  merge_raw_one prefix (s, None) re = (s2, er2) →
  (rxn_empty (raw_rxn re) = true ∧ er2 = Some ValueError ∧ edges s2 = edges s ∧ order s2 = order s) ∨
  (rxn_empty (raw_rxn re) = false ∧ er2 = None ∧
   ∃ e', edges s !! e' = None ∧ edges s2 = <[ e' := raw_rxn re ]> (edges s) ∧
         order s2 = (order s ++ [e'])%list ∧
         (prefix = false → ∀ e, re.1.1.1 = Some e → edges s !! e = None → e' = e)).
Proof. destruct re as [[[eid rule] l] r]. rewrite merge_raw_one_add. apply merge_add_spec. Qed.

(** the whole merge: stops at the first empty raw edge (ValueError; the edges
    before it stay merged), otherwise succeeds; own reactions are kept; every
    stored reaction is an old one or a normalised raw edge *)
Lemma merge_raw_spec prefix es : ∀ s s' er,
  merge_raw s es prefix = (s', er) →
  (er = None ∨ er = Some ValueError) ∧
  (er = None ↔ Forall (λ re, rxn_empty (raw_rxn re) = false) es) ∧
  edges s ⊆ edges s' ∧
  (er = None → ∀ re, re ∈ es → ∃ e', edges s' !! e' = Some (raw_rxn re) ∧ edges s !! e' = None) ∧
  (∀ e' rx, edges s' !! e' = Some rx → edges s !! e' = Some rx ∨ ∃ re, re ∈ es ∧ rx = raw_rxn re).
Proof.
  unfold merge_raw. induction es as [|re es IH]; intros s s' er; cbn [foldl].
  - intros [= <- <-]. split_and!; [by left|done|done|by intros _ ? ?%elem_of_nil|by left].
  - destruct (merge_raw_one prefix (s, None) re) as [s2 er2] eqn:H1.
    destruct (merge_raw_one_spec _ _ _ _ _ H1) as [(Hem & -> & HE & _)|(Hem & -> & e1 & Hn1 & HE & _)].
    + (* error: the fold keeps the error state *)
      assert (Hfix : ∀ l, foldl (merge_raw_one prefix) (s2, Some ValueError) l = (s2, Some ValueError))
        by (induction l; [done|cbn; done]).
      rewrite Hfix. intros [= <- <-]. split_and!; [by right| |by rewrite HE|done|].
      * split; [done|]. intros HF. apply Forall_cons in HF as [HF _]. congruence.
      * intros e' rx. rewrite HE. by left.
    + intros Hrest. destruct (IH s2 s' er Hrest) as (Her & Hiff & Hsub & Hall & Honly).
      assert (Hs2 : edges s ⊆ edges s2) by (rewrite HE; by apply insert_subseteq).
      split_and!; [done| |by etrans| |].
      * rewrite Hiff. split; [intros ?; by constructor|by intros [_ ?]%Forall_cons].
      * intros -> re0 [->|Hin]%elem_of_cons.
        -- exists e1. split; [|done]. eapply lookup_weaken; [|exact Hsub]. rewrite HE. apply lookup_insert.
        -- destruct (Hall eq_refl re0 Hin) as (e' & ? & ?). exists e'. split; [done|]. by eapply lookup_weaken_None.
      * intros e' rx [Hs|(re0 & Hin & ->)]%Honly.
        -- rewrite HE in Hs. apply lookup_insert_Some in Hs as [[<- <-]|[_ ?]]; [|by left].
           right. exists re. split; [by left|done].
        -- right. exists re0. split; [by right|done].
Qed.
