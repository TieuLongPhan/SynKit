(** C07 — non-vacuity examples for the theorems of proof/C07_Entry.v.  Stdlib lists. *)
From Coq Require Import List NArith Lia.
From SK Require Import lib.Tok lib.LGraph model.C07_Model
  proof.C07_Spec proof.C07_History proof.C07_Main proof.C07_Relabel proof.C07_Extra
  proof.C07_Examples proof.C07_Entry proof.C07_Cache.
Import ListNotations.

(* keys: 1 element, 2 charge, 4 order; values: C = 1, O = 2, charge 0 = 3, charge -1 = 4, order 1 = 5, "*" = 9 *)
Definition gC_O : graph := LG [(3, aC); (4, aO)]%N [].                 (* C and O, not bonded *)
Lemma wf_gC_O : gwf gC_O. Proof. wf_small. Qed.

(** options as a caller writes them: names [element; charge], defaults ["*"; 0], edge attribute "order", default comparators *)
Definition oDef (filt : bool) (ct : N) : sub_opts := SO [1; 2]%N [9; 3]%N (EaKey 4%N) filt ct None None 0%N.
Lemma oDef_ok fn filt ct : entry_ok fn (oDef filt ct).
Proof. split; [right; discriminate | reflexivity]. Qed.

(** check_type: "induced" (code 0) — C . O is not an induced subgraph of C-O; "monomorphism" (code 1) and the misspelt "Induced"
    (code 7) both run the monomorphism test — it is one *)
Example ex_entry_check_type :
  sub_entry has_mono FnSM (oDef false 0) gC_O gCO = RB false /\
  sub_entry has_mono FnSM (oDef false 1) gC_O gCO = RB true /\
  sub_entry has_mono FnGM (oDef true 7) gC_O gCO = RB true /\
  contained false (nm_subc CEq [(1, 9); (2, 3)]%N) (em_subc CEq (Some 4%N)) gCO gC_O.
Proof.
  split; [vm_compute; reflexivity|]. split; [vm_compute; reflexivity|]. split.
  - change (oDef true 7) with (set_ctype (oDef true 0) 7). rewrite (check_type_spellings has_mono FnGM (oDef true 0) 7); [|discriminate].
    vm_compute. reflexivity.
  - destruct (entry_spec has_mono has_mono_contract FnSM (oDef false 1) gC_O gCO wf_gC_O wf_gCO) as (b & E & S).
    + apply oDef_ok.
    + apply S. assert (Eb : RB b = RB true) by (rewrite <- E; vm_compute; reflexivity). congruence.
Qed.

(** use_filter at the entry points *)
Example ex_entry_filter : sub_entry has_mono FnIS (oDef true 1) gC_O gCO = sub_entry has_mono FnIS (oDef false 1) gC_O gCO.
Proof.
  apply (entry_filter_transparent has_mono has_mono_contract FnIS (oDef false 1) gC_O gCO wf_gC_O wf_gCO).
  apply oDef_ok.
Qed.

(** names and defaults of different lengths are zipped: names [element; charge] with defaults ["*"] compare the element only,
    so C-O and C-[O-] match although their charges differ *)
Example ex_entry_zip :
  o_sel (SO [1; 2]%N [9]%N (EaKey 4%N) false 0 None None 0%N) = [(1, 9)]%N /\
  sub_entry has_mono FnSM (SO [1; 2]%N [9]%N (EaKey 4%N) true 0 None None 0%N) gCO gCOm = RB true /\
  sub_entry has_mono FnSM (oDef true 0) gCO gCOm = RB false.
Proof. repeat apply conj; vm_compute; reflexivity. Qed.

(** the facade: back-end "nx" (0) is subgraph_isomorphism without comparators — the wildcard comparator a caller may have put into the
    options is dropped; "mod" (1) is not installed: ImportError (2); an unknown name: ValueError (3) *)
Definition oWild (be : N) : sub_opts := SO [1; 2]%N [9; 3]%N (EaKey 4%N) false 0 (Some CAny) (Some CAny) be.
Example ex_facade :
  sub_entry has_mono FnIS (oWild 0) gCO gCOm = sub_entry has_mono FnSM (no_cmps (oWild 0)) gCO gCOm /\
  sub_entry has_mono FnIS (oWild 0) gCO gCOm = RB false /\ sub_entry has_mono FnSM (oWild 0) gCO gCOm = RB true /\
  sub_entry has_mono FnIS (oWild 1) gCO gCOm = RErr 2 /\ sub_entry has_mono FnIS (oWild 17) gCO gCOm = RErr 3.
Proof.
  split; [rewrite is_subgraph_facade; reflexivity|]. repeat apply conj; vm_compute; reflexivity.
Qed.

(** edge_attribute: None raises TypeError in SubgraphMatch — unless the filter answered False before (C-O-C in C-O: too many nodes);
    graph_morphism switches edge matching off; "" is an ordinary absent attribute for SubgraphMatch *)
Definition oEa (a : eattr_raw) (filt : bool) : sub_opts := SO [1; 2]%N [9; 3]%N a filt 0 None None 0%N.
Example ex_entry_edge_attribute :
  sub_entry has_mono FnSM (oEa EaNone false) gCO gOC = RErr 1 /\
  sub_entry has_mono FnSM (oEa EaNone true) gCOC gCO = RB false /\
  sub_entry has_mono FnGM (oEa EaNone false) gCO gOC = RB true /\
  sub_entry has_mono FnSM (oEa (EaEmpty 11) true) gCO gOC = RB true.
Proof. repeat apply conj; vm_compute; reflexivity. Qed.

(** the intermediate value: no matcher is built when the filter rejects (C-O-C in C-O), otherwise check_type picks the method *)
Example ex_entry_trace :
  entry_trace FnSM (oDef true 0) gCOC gCO = 0%N /\ sub_entry has_mono FnSM (oDef true 0) gCOC gCO = RB false /\
  entry_trace FnSM (oDef false 0) gCOC gCO = 2%N /\ entry_trace FnGM (oDef true 5) gCO gOC = 4%N.
Proof.
  split; [vm_compute; reflexivity|]. split; [|split; vm_compute; reflexivity].
  apply (entry_trace_spec has_mono FnSM (oDef true 0) gCOC gCO (oDef_ok _ _ _)). vm_compute. reflexivity.
Qed.

(** find_graph_isomorphism(C-O, O-C): the mapping {1: 5, 2: 7}, keys = nodes of G1, an isomorphism G1 -> G2 *)
Definition fgiEx : option mapping := fgi_map has_mono (monos_g true) true true 9 3 5 gCO gOC.
Example ex_fgi_map : fgiEx = Some [(1, 5); (2, 7)]%N /\
  iso_map (flip2 (fgi_nm true 9 3)) (flip2 (fgi_em true 5)) gOC gCO (mfun [(1, 5); (2, 7)]%N).
Proof.
  assert (E : fgiEx = Some [(1, 5); (2, 7)]%N) by (vm_compute; reflexivity). split; [exact E|].
  apply (fgi_map_spec has_mono (monos_g true) has_mono_contract monos_g_contract true true 9 3 5 gCO gOC wf_gCO wf_gOC). exact E.
Qed.
Example ex_fgi_map_none : fgi_map has_mono (monos_g true) true true 9 3 5 gCO gCOm = Some [(2, 5); (1, 7)]%N /\
                          fgi_map has_mono (monos_g true) true true 9 3 5 gCO gCOC = None.
Proof. split; vm_compute; reflexivity. Qed.

(** intermediate values of isomorphic / get_mappings: C-O-C (index 3) against C-O (index 0): the larger graph is the host of _pre_check
    whatever the argument order, subgraph_is_isomorphic decides; get_mappings enumerates with subgraph_isomorphisms_iter *)
Example ex_iso_trace :
  iso_trace eFull 0 (gnth gsA 0) 3 (gnth gsA 3) [] = [3; 0; 1; 2]%N /\ iso_trace eFull 3 (gnth gsA 3) 0 (gnth gsA 0) [] = [3; 0; 1; 2]%N /\
  maps_trace eFull 3 (gnth gsA 3) 0 (gnth gsA 0) [] = [1; 3]%N /\ maps_trace eFull 0 (gnth gsA 0) 3 (gnth gsA 3) [] = [0; 0]%N /\
  fst (get_mappings has_mono (monos_g true) eFull 0 (gnth gsA 0) 3 (gnth gsA 3) []) = [].
Proof.
  do 4 (split; [vm_compute; reflexivity|]).
  apply maps_trace_verdict. vm_compute. reflexivity.
Qed.

(** relabelling and symmetry of the helpers: C . O renumbered by +10 is still a monomorphic, not an induced,
    subgraph of C-O; graph_isomorphism / find_graph_isomorphism give the same verdict for (C-O, O-C) and (O-C, C-O) *)
Definition rPlus (x : N) : N := (x + 10)%N.
Lemma rPlus_inj l : inj_on rPlus l. Proof. intros a b _ _ E. unfold rPlus in E. lia. Qed.
Example ex_entry_relabel :
  sub_entry has_mono FnSM (oDef true 1) (grelabel rPlus gC_O) gCO = RB true /\
  sub_entry has_mono FnSM (oDef true 0) gC_O (grelabel rPlus gCO) = RB false.
Proof.
  destruct (entry_relabel has_mono has_mono_contract FnSM (oDef true 1) rPlus gC_O gCO wf_gC_O wf_gCO (oDef_ok _ _ _)) as (A & _).
  destruct (entry_relabel has_mono has_mono_contract FnSM (oDef true 0) rPlus gC_O gCO wf_gC_O wf_gCO (oDef_ok _ _ _)) as (_ & B).
  rewrite (A (rPlus_inj _)), (B (rPlus_inj _)). split; vm_compute; reflexivity.
Qed.
Example ex_helpers_symmetric :
  giso has_mono 9 3 5 gCO gOC = true /\ giso has_mono 9 3 5 gOC gCO = true /\
  fgi has_mono true true 9 3 5 gCOm gCO = fgi has_mono true true 9 3 5 gCO gCOm /\
  giso has_mono 9 3 5 (grelabel rPlus gCO) gCOm = false.
Proof.
  destruct (helpers_symmetric has_mono has_mono_contract gCO gOC wf_gCO wf_gOC) as (A & _).
  destruct (helpers_symmetric has_mono has_mono_contract gCOm gCO wf_gCOm wf_gCO) as (_ & _ & C).
  destruct (helpers_relabel has_mono has_mono_contract gCO gCOm rPlus wf_gCO wf_gCOm) as (D & _).
  split; [vm_compute; reflexivity|]. split; [rewrite <- A; vm_compute; reflexivity|]. split; [apply C|].
  destruct (D (rPlus_inj _)) as (D1 & _). rewrite D1. vm_compute. reflexivity.
Qed.

(** the cache after the history of ex_history (proof/C07_Examples.v): only keys of the two filtering engines, growing query by query;
    isomorphic and get_mappings agree on the equal-sized pair C-O / O-C *)
Example ex_cache_keys_engines : forall k, In k (keys (end_cache has_mono (monos_g true) gsA [eFull; eElem] histQ [])) ->
  key_of_filtering_engine [eFull; eElem] k.
Proof. apply end_cache_keys. apply keys_nil. Qed.
Example ex_cache_trace : cache_trace has_mono (monos_g true) gsA [eFull; eElem] (firstn 2 histQ) [] =
  [[(0%nat, [1; 2]%N); (2%nat, [1; 2]%N)]; [(0%nat, [1]%N); (2%nat, [1]%N); (0%nat, [1; 2]%N); (2%nat, [1; 2]%N)]].
Proof. vm_compute. reflexivity. Qed.
Example ex_iso_maps_consistent :
  fst (isomorphic has_mono eFull 0 (gnth gsA 0) 1 (gnth gsA 1) []) = true /\
  fst (get_mappings has_mono (monos_g true) eFull 0 (gnth gsA 0) 1 (gnth gsA 1) []) <> [].
Proof.
  assert (A : fst (isomorphic has_mono eFull 0 (gnth gsA 0) 1 (gnth gsA 1) []) = true) by (vm_compute; reflexivity).
  split; [exact A|].
  apply (iso_maps_consistent has_mono (monos_g true) has_mono_contract monos_g_contract gsA eFull 0 1 [] [] (cache_inv_nil gsA) (cache_inv_nil gsA)
           wf_gCO wf_gOC); [reflexivity | discriminate | exact A].
Qed.

(** isomorphic is reflexive and transitive: C-O ~ O-C (a relabelled copy) ~ C-O gives C-O ~ C-O, whatever the caches hold *)
Example ex_iso_preorder : fst (isomorphic has_mono eFull 0 (gnth gsA 0) 0 (gnth gsA 0) []) = true.
Proof.
  destruct (iso_preorder has_mono has_mono_contract gsA eFull) as (_ & T).
  apply (T 0%nat 1%nat 0%nat [] [] [] (cache_inv_nil gsA) (cache_inv_nil gsA) (cache_inv_nil gsA) wf_gCO wf_gOC wf_gCO);
    vm_compute; reflexivity.
Qed.

(** induced containment implies monomorphic containment: C-O is an induced subgraph of C-O-C, hence also a monomorphic one *)
Example ex_induced_implies_mono : sub_entry has_mono FnGM (oDef true 1) gCO gCOC = RB true.
Proof.
  apply (entry_induced_implies_mono has_mono has_mono_contract FnGM (oDef true 0) 1%N gCO gCOC wf_gCO wf_gCOC);
    [apply oDef_ok | discriminate | vm_compute; reflexivity].
Qed.

(** corollaries: C-O is contained in C-O-C (get_mappings non-empty), C-O-C is not isomorphic to C-O; guards *)
Example ex_embeddings_iff : fst (get_mappings has_mono (monos_g true) eFull 3 (gnth gsA 3) 0 (gnth gsA 0) []) <> [].
Proof.
  apply (embeddings_iff has_mono (monos_g true) has_mono_contract monos_g_contract gsA eFull 3 0 [] (cache_inv_nil gsA) wf_gCOC wf_gCO);
    [discriminate|]. apply (has_mono_contract true _ _ gCOC gCO wf_gCOC wf_gCO). vm_compute. reflexivity.
Qed.
Example ex_iso_unequal_orders : fst (isomorphic has_mono eFull 3 (gnth gsA 3) 0 (gnth gsA 0) []) = false.
Proof.
  apply (iso_unequal_orders has_mono has_mono_contract gsA eFull 3 0 [] (cache_inv_nil gsA) wf_gCOC wf_gCO). vm_compute. lia.
Qed.
Example ex_guards : fst (step has_mono (monos_g true) gsA [eFull] (QObj false 0 None (Some 1%nat)) []) = L [tN 99; tN 1] /\
                    fst (step has_mono (monos_g true) gsA [eFull] (QFgiT 0 1 0 1 true true 9 3 5) []) = tbool false /\
                    fst (step has_mono (monos_g true) gsA [eFull] (QFgiT 0 0 0 1 true true 9 3 5) []) = tbool true.
Proof. repeat apply conj; vm_compute; reflexivity. Qed.

(** when the cache is written: the filtering engine comparing C-O with O-C (equal orders) leaves both entries; comparing C-O-C with
    C-O (different orders) leaves the cache alone *)
Example ex_pre_check_writes :
  In (0%nat, [1; 2]%N) (keys (snd (pre_check eFull 0 (gnth gsA 0) 1 (gnth gsA 1) []))) /\
  snd (pre_check eFull 3 (gnth gsA 3) 0 (gnth gsA 0) []) = [].
Proof.
  split.
  - apply (pre_check_writes eFull 0 (gnth gsA 0) 1 (gnth gsA 1) []). vm_compute. repeat split; lia.
  - apply (pre_check_writes eFull 3 (gnth gsA 3) 0 (gnth gsA 0) []). vm_compute. intros (_ & E & _). discriminate.
Qed.
