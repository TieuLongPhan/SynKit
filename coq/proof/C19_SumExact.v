(** C19 — the last clause of the property WITHOUT certificates: with the exact (MathComp) ranks over the rationals, for every
    network the linkage-class deficiencies n_c - 1 - rank D_c sum to at most n - l - rank S.  MathComp style. *)
From mathcomp Require Import ssreflect ssrbool eqtype ssrnat seq fintype bigop ssralg matrix mxalgebra rat.
From mathcomp Require Import ssrZ zify.
From Coq Require Import ZArith.
From SK Require Import lib.RankBridge.
Require SK.model.C17_Model SK.model.C19_Model SK.proof.C19_Complexes SK.proof.C19_Bridge SK.proof.C19_Rank SK.proof.C19_ClassRank.
Set Implicit Arguments. Unset Strict Implicit. Unset Printing Implicit Defensive.

Lemma length_concat_sum T (L : seq (seq T)) : length (List.concat L) = List.list_sum (List.map (@length T) L).
Proof. by elim: L => [|c L IH] //=; rewrite List.app_length IH. Qed.

Section Exact.
Variables (net : seq C17_Model.rxn) (iso : seq C17_Model.str).
Let cs := fst (C19_Model.complex_graph net iso).
Let arcs := snd (C19_Model.complex_graph net iso).
Let L := C19_Model.linkage_classes arcs (length cs).
Let l := length L.
Let m := length (C17_Model.species_order net iso).
Let r := length (C17_Model.reaction_order net).
Let S := C17_Model.build_S net iso.
Let nc (c : 'I_l) : nat := length (List.nth c L nil).
Let rho (c : 'I_l) : nat := \rank (C19_Rank.Dm (net:=net) (iso:=iso) c).

Lemma rho_bound c : (rho c + 1 <= nc c)%nat.
Proof. by have /ltP H := ltn_ord c; exact: (@C19_ClassRank.class_rank_bound net iso c H). Qed.

Lemma sum_sizes : (\sum_(c < l) nc c)%nat = length cs.
Proof.
rewrite -(C19_Bridge.concat_classes_length net iso) -/cs -/arcs -/L length_concat_sum.
by rewrite -(C19_Rank.sum_nth _ _ nil) big_mkord.
Qed.

(** rank S + sum_c (n_c - 1 - rank D_c) + l <= n   (all subtractions are exact: rank D_c + 1 <= n_c) *)
Theorem linkage_sum_exact :
  (\rank (toM m r S) + \sum_(c < l) (nc c - 1 - rho c) + l <= length cs)%nat.
Proof.
have B : (\rank (toM m r S) <= \sum_(c < l) rho c)%nat := C19_Rank.rank_le_class_ranks net iso.
have E1 : (\sum_(c < l) (nc c - 1 - rho c) + \sum_(c < l) rho c = \sum_(c < l) (nc c - 1))%nat.
  by rewrite -big_split /=; apply: eq_bigr => c _; have := rho_bound c; lia.
have E2 : (\sum_(c < l) (nc c - 1) + l = \sum_(c < l) nc c)%nat.
  have E3 : (\sum_(c < l) 1 = l)%nat by rewrite sum_nat_const card_ord muln1.
  rewrite -[X in (_ + X)%nat]E3 -big_split /=.
  by apply: eq_bigr => c _; have := rho_bound c; lia.
rewrite -sum_sizes -E2 -E1. lia.
Qed.

(** the same with the standard library's list sum over the classes *)
Theorem linkage_sum_exact_list :
  let rank_c (c : seq N) := \rank (toM (length (C19_Model.class_diffs cs arcs c)) m (C19_Model.class_diffs cs arcs c)) in
  Peano.le (Nat.add (Nat.add (\rank (toM m r S)) (List.list_sum (List.map (fun c => Nat.sub (Nat.sub (length c) 1) (rank_c c)) L))) (length L))
           (length cs).
Proof.
move=> rank_c; apply/leP; rewrite !plusE.
rewrite -(C19_Rank.sum_nth (fun c => Nat.sub (Nat.sub (length c) 1) (rank_c c)) L nil) big_mkord.
exact: linkage_sum_exact.
Qed.
End Exact.

Print Assumptions linkage_sum_exact_list.

(* non-vacuity: A + B <-> C, C -> 2A has one class of three complexes: rank S + (3 - 1 - rank D) + 1 <= 3 *)
Example ex_sum_exact :
  let cs := fst (C19_Model.complex_graph C19_Complexes.ex_net nil) in
  let arcs := snd (C19_Model.complex_graph C19_Complexes.ex_net nil) in
  length cs = 3%nat /\ length (C19_Model.linkage_classes arcs (length cs)) = 1%nat /\
  length (C19_Model.class_diffs cs arcs (List.nth 0 (C19_Model.linkage_classes arcs (length cs)) nil)) = 3%nat.
Proof. by split; [|split]; vm_compute. Qed.
