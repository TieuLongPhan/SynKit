(** C18 — attribute selections (model/C18_AttrModel.v): with the default selection (kind; role, stoich) the generalised
    canonicaliser IS the base model. *)
From Coq Require Import List NArith ZArith Bool Arith Lia Permutation.
From SK Require Import lib.IRSortKeys lib.IRCore lib.IRSearch lib.StrJoin lib.C18_IRValid model.C18_Model model.C18_AttrModel
  proof.C18_Order proof.C18_Spec proof.C18_Graph proof.C18_Canon.
From SK Require lib.IRInst.
Import ListNotations.

(* ---------------- the search only depends on the values of sig and label ---------------- *)
Section Ext.
Variable S : Type.
Variable sleb : S -> S -> bool.
Variables sig1 sig2 : partition -> N -> S.
Hypothesis sig_ext : forall P v, sig1 P v = sig2 P v.

Lemma split_cell_ext P c : split_cell sleb sig1 P c = split_cell sleb sig2 P c.
Proof.
  unfold split_cell, keys, group. rewrite (map_ext _ _ (sig_ext P)).
  destruct (length c <=? 1); auto. destruct (length _ <=? 1); auto.
  apply map_ext. intros s. apply filter_ext. intros v. rewrite sig_ext. reflexivity.
Qed.
Lemma refine_step_ext P : refine_step sleb sig1 P = refine_step sleb sig2 P.
Proof. unfold refine_step. generalize P at 1 3 as Q. intros Q. induction P; simpl; auto. rewrite split_cell_ext, IHP. reflexivity. Qed.
Lemma refine_ext fuel : forall P, refine sleb sig1 fuel P = refine sleb sig2 fuel P.
Proof. induction fuel as [|f IH]; intros P; simpl; auto. rewrite refine_step_ext. destruct (_ =? _); auto. Qed.

Variable L : Type.
Variable leb : L -> L -> bool.
Variables label1 label2 : list N -> L.
Hypothesis label_ext : forall p, label1 p = label2 p.
Variable partial : list N -> L.
Variable rf : nat.

Lemma visit_ext a p : visit leb label1 a p = visit leb label2 a p.
Proof. unfold visit. rewrite label_ext. reflexivity. Qed.
Lemma search_ext fuel : forall P pre a,
  search sleb sig1 rf leb label1 partial fuel P pre a = search sleb sig2 rf leb label2 partial fuel P pre a.
Proof.
  induction fuel as [|f IH]; intros P pre a; simpl; auto. rewrite refine_ext.
  destruct (first_big _); [|apply visit_ext].
  apply fold_left_ext_in. intros a' v _. destruct (pruned _ _ _ _); auto.
Qed.
End Ext.

(* ---------------- the default selection ---------------- *)
Definition NK0 : list nsel := [NKind].
Definition EK0 : list esel := [ERole; EStoich].

Lemma lexleb_pair a b : lexleb [fst a; snd a] [fst b; snd b] = attr_leb a b.
Proof.
  unfold attr_leb. simpl. destruct (Z.ltb (fst a) (fst b)); auto. destruct (Z.ltb (fst b) (fst a)); auto.
  destruct (Z.ltb_spec (snd a) (snd b)), (Z.ltb_spec (snd b) (snd a)), (Z.leb_spec (snd a) (snd b)); auto; lia.
Qed.
Lemma ins_tuple_pairs x m : ins_tuple (ekey EK0 x) (map (ekey EK0) m) = map (ekey EK0) (ins_attr x m).
Proof.
  induction m as [|y m IH]; [reflexivity|]. cbn [map ins_tuple ins_attr].
  change (lexleb (ekey EK0 x) (ekey EK0 y)) with (lexleb [fst x; snd x] [fst y; snd y]). rewrite lexleb_pair.
  destruct (attr_leb x y); cbn [map]; [reflexivity|]. rewrite IH. reflexivity.
Qed.
Lemma sort_tuples_pairs l : sort_tuples (map (ekey EK0) l) = map (ekey EK0) (sort_attrs l).
Proof.
  induction l as [|x l IH]; [reflexivity|]. unfold sort_tuples, sort_attrs in *. cbn [map fold_right]. rewrite IH. apply ins_tuple_pairs.
Qed.
Lemma concat_pairs l : concat (map (ekey EK0) l) = flat_attrs l.
Proof. induction l as [|x l IH]; simpl; auto. f_equal. f_equal. exact IH. Qed.

Lemma sigA_default g t P v : sigA g t NK0 EK0 P v = sig g P v.
Proof. unfold sigA, sig. simpl. rewrite sort_tuples_pairs, concat_pairs. reflexivity. Qed.

Lemma labelA_default g t p : labelA g t NK0 EK0 p = label g p.
Proof.
  unfold labelA, label. f_equal. f_equal. f_equal. unfold edge_bitsA, edge_bits.
  apply flat_map_ext. intros iv. apply flat_map_ext. intros jw. destruct (Nat.eqb _ _); auto. f_equal.
  unfold bitA, bit. destruct (find_arc g (snd iv) (snd jw)) as [[r s]|]; reflexivity.
Qed.

Lemma lexleb_single x y : lexleb [x] [y] = Z.leb x y.
Proof. simpl. destruct (Z.ltb_spec x y), (Z.ltb_spec y x), (Z.leb_spec x y); auto; lia. Qed.
Lemma ins_single x m : ins lexleb [x] (map (fun z : Z => [z]) m) = map (fun z : Z => [z]) (ins Z.leb x m).
Proof.
  induction m as [|y m IH]; [reflexivity|]. cbn [map ins]. rewrite !lexleb_single.
  destruct (Z.leb x y), (Z.leb y x); cbn [map]; try reflexivity; rewrite IH; reflexivity.
Qed.
Lemma sort_dedup_single l : sort_dedup lexleb (map (fun z => [z]) l) = map (fun z : Z => [z]) (sort_dedup Z.leb l).
Proof.
  induction l as [|x l IH]; [reflexivity|]. unfold sort_dedup in *. cbn [map fold_right]. rewrite IH. apply ins_single.
Qed.

Lemma init_partA_default g t : NoDup (node_ids g) -> init_partA g t NK0 = init_part g.
Proof.
  intros Hnd. unfold init_partA, init_part, NK0.
  assert (E : map (nkey g t [NKind]) (node_ids g) = map (fun z => [z]) (map snd (vnodes g))).
  { unfold node_ids. rewrite !map_map. apply map_ext_in. intros [v k] I. unfold nkey. simpl.
    unfold kind_of. rewrite (kind_of_l_in _ v k Hnd I). reflexivity. }
  rewrite E, sort_dedup_single, map_map. apply map_ext. intros k. f_equal.
  rewrite kind_cell by auto. apply filter_ext. intros v. unfold nkey. cbn [map nval fst]. unfold eqb. rewrite !lexleb_single. reflexivity.
Qed.

Theorem canon_searchA_default g t : NoDup (node_ids g) -> canon_searchA g t NK0 EK0 = canon_search g.
Proof.
  intros Hnd. unfold canon_searchA, canon_search. rewrite init_partA_default by auto.
  apply search_ext; [intros; apply sigA_default|intros; apply labelA_default].
Qed.
