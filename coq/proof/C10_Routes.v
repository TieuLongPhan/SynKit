(** C10 — proofs: the documented ways of producing a GML rule. *)
From Coq Require Import List NArith ZArith Bool Lia.
From SK Require Import lib.LGraph lib.StrJoin model.C10_Model proof.C10_Views.
Import ListNotations.
Local Open Scope Z_scope.

(** from the reaction string (after RDKit: r, p = rsmi_to_graph) or from the ITS of the same two graphs:
    with core=True both export the same record, entry for entry, for every setting of reindex / explicit_hydrogen *)
Lemma two_routes_string_its (r p : gr) (eo : list (N * N)) (reindex eh : bool) :
  smart_to_gml r p eo true reindex eh = its_to_gml (its_construct r p eo) true reindex eh.
Proof.
  unfold smart_to_gml, its_to_gml. destruct (its_decompose (get_rc (its_construct r p eo))). reflexivity.
Qed.

(** its_to_gml with core=True exports [get_rc its] — the left, right AND context sections of a core export are those
    of the export of the centre as a full graph *)
Lemma its_core_is_centre_export (its : gr) (reindex eh : bool) :
  its_to_gml its true reindex eh = its_to_gml (get_rc its) false reindex eh.
Proof. reflexivity. Qed.
