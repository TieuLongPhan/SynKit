(** C03 — when is the rule prepared in the default mode hydrogen-balanced?  Its total hydrogen change is the number of
    right-side bonds minus the number of left-side bonds between the removed hydrogens and the kept non-hydrogen atoms;
    it is 0 as soon as every removed hydrogen has as many such bonds on the right as on the left (e.g. exactly one on
    each side). *)
From Coq Require Import List NArith ZArith Bool Lia Permutation.
From SK Require Import lib.Tok lib.LGraph model.C03_Model proof.C03_Proof proof.C03_Glue proof.C03_Backward proof.C03_Skeleton
                       proof.C03_StripCounts proof.C03_WiringCount proof.C03_StripExact proof.C03_StripCor.
Import ListNotations.
Local Open Scope Z_scope.

Lemma countZ_cons {A} (P : A -> bool) x l : countZ P (x :: l) = (if P x then 1 else 0) + countZ P l.
Proof. unfold countZ. simpl. destruct (P x); simpl length; lia. Qed.

Lemma countZ_perm {A} (P : A -> bool) l l' : Permutation l l' -> countZ P l = countZ P l'.
Proof. unfold countZ. induction 1; simpl; try (destruct (P x)); try (destruct (P y)); simpl; try lia. Qed.

(** double counting *)
Lemma count_swap {A B} (P : A -> B -> bool) (K : list A) (R : list B) :
  fold_right (fun k acc => countZ (P k) R + acc) 0 K = fold_right (fun h acc => countZ (fun k => P k h) K + acc) 0 R.
Proof.
  induction K as [|k K IH]; simpl.
  - induction R as [|h R IHR]; simpl; [reflexivity|]. rewrite <- IHR. unfold countZ. simpl. lia.
  - rewrite IH. clear IH. induction R as [|h R IHR]; simpl; [unfold countZ; simpl; lia|].
    rewrite !countZ_cons, <- IHR. destruct (P k h); lia.
Qed.


Theorem default_rule_dH (tpl rc : its) (l r : molg) :
  nodupb (node_ids tpl) = true -> (forall k a, In (k, a) (gnodes tpl) -> a_el (iH a) = a_el (iG a)) ->
  simple_edgesb (gedges tpl) = true -> synrule tpl true = Some (rc, l, r) ->
  exists R K : list N,
    NoDup R /\ NoDup K /\
    (forall h, In h R <-> is_H_i tpl h = true /\ heavy_nbr (side0 iG eG tpl) h = true /\ heavy_nbr (side0 iH eH tpl) h = true) /\
    (forall k, In k K <-> In k (node_ids tpl) /\ is_H_i tpl k = false) /\
    sumZ dH rc = fold_right (fun h acc => (countZ (fun k => bonded eH tpl k h) K - countZ (fun k => bonded eG tpl k h) K) + acc) 0 R.
Proof.
  intros Hnd0 Hel Hs H. pose proof (nodupb_NoDup _ Hnd0) as Hnd.
  destruct (synrule_default_pointwise tpl rc l r Hnd0 Hel H) as (R & NR & Memb & Eids & _ & _ & Nrc & _ & Pt & _).
  set (K := filter (fun k => negb (is_H_i tpl k)) (node_ids rc)).
  exists R, K. split; [exact NR|]. split; [unfold K; apply NoDup_filter; exact Nrc|]. split; [exact Memb|]. split.
  - intros k. unfold K. rewrite filter_In, Eids, filter_In. split.
    + intros [[I _] Hk]. split; [exact I|]. apply negb_true_iff. exact Hk.
    + intros [I Hk]. split; [split; [exact I|]|rewrite Hk; reflexivity].
      destruct (mem k R) eqn:Em; [|reflexivity]. apply mem_spec in Em. apply Memb in Em. destruct Em as [Em _]. congruence.
  - (* the sum over the nodes of rc, by node id *)
    assert (S1 : sumZ dH rc = sumF (fun k => match label rc k with Some a => dH a | None => 0 end) (node_ids rc)).
    { unfold sumZ, label, node_ids. symmetry. apply sumF_ids. exact Nrc. }
    rewrite S1.
    assert (S2gen : forall ks, (forall k, In k ks -> In k (node_ids tpl) /\ ~ In k R) ->
                 sumF (fun k => match label rc k with Some a => dH a | None => 0 end) ks
                 = fold_right (fun k acc => (countZ (bonded eH tpl k) R - countZ (bonded eG tpl k) R) + acc) 0
                     (filter (fun k => negb (is_H_i tpl k)) ks)).
    { induction ks as [|k ks IH]; intros Hall; [reflexivity|]. cbn [sumF fold_right filter].
      fold (sumF (fun k0 => match label rc k0 with Some a => dH a | None => 0 end) ks). rewrite IH by (intros; apply Hall; right; assumption).
      destruct (Hall k (or_introl eq_refl)) as [Ik HnR]. unfold node_ids in Ik. apply in_map_iff in Ik. destruct Ik as ([k' a0] & E & Ia). cbn [fst] in E. subst k'.
      pose proof (assoc_nodup_in k (gnodes tpl) a0 Hnd Ia) as La. fold (label tpl k) in La.
      destruct (Pt k a0 La HnR) as (a & Lr & _ & _ & HG & HH). rewrite Lr. unfold dH. rewrite HG, HH.
      unfold is_H_i. rewrite La. destruct (N.eqb (a_el (iG a0)) EL_H); cbn [negb fold_right]; [lia|].
      rewrite !(sum_cnt_adjacent _ _ tpl R k Hs). unfold countZ, bonded. lia. }
    assert (S2 : sumF (fun k => match label rc k with Some a => dH a | None => 0 end) (node_ids rc)
                 = fold_right (fun k acc => (countZ (bonded eH tpl k) R - countZ (bonded eG tpl k) R) + acc) 0 K).
    { apply S2gen. intros k I. rewrite Eids in I. apply filter_In in I. destruct I as [I Hk]. split; [exact I|]. apply negb_true_iff in Hk.
      intros C. apply mem_spec in C. congruence. }
    rewrite S2.
    (* swap the two sums *)
    assert (Sp : forall (f g : N -> Z) (L : list N), fold_right (fun k acc => (f k - g k) + acc) 0 L
                 = fold_right (fun k acc => f k + acc) 0 L - fold_right (fun k acc => g k + acc) 0 L).
    { intros f g L. induction L as [|x L IH]; simpl; [reflexivity|]. rewrite IH. lia. }
    rewrite (Sp (fun k => countZ (bonded eH tpl k) R) (fun k => countZ (bonded eG tpl k) R) K).
    rewrite (Sp (fun h => countZ (fun k => bonded eH tpl k h) K) (fun h => countZ (fun k => bonded eG tpl k h) K) R).
    rewrite (count_swap (bonded eH tpl) K R), (count_swap (bonded eG tpl) K R). reflexivity.
Qed.


(** in particular: if every removed hydrogen has as many bonds to kept heavy atoms on the right as on the left (one and one,
    in every ordinary template), the prepared rule neither creates nor destroys hydrogens *)
Corollary default_rule_H_balanced (tpl rc : its) (l r : molg) :
  nodupb (node_ids tpl) = true -> (forall k a, In (k, a) (gnodes tpl) -> a_el (iH a) = a_el (iG a)) ->
  simple_edgesb (gedges tpl) = true -> synrule tpl true = Some (rc, l, r) ->
  exists R K : list N,
    NoDup R /\ NoDup K /\
    (forall h, In h R <-> is_H_i tpl h = true /\ heavy_nbr (side0 iG eG tpl) h = true /\ heavy_nbr (side0 iH eH tpl) h = true) /\
    (forall k, In k K <-> In k (node_ids tpl) /\ is_H_i tpl k = false) /\
    ((forall h, In h R -> countZ (fun k => bonded eH tpl k h) K = countZ (fun k => bonded eG tpl k h) K) -> sumZ dH rc = 0).
Proof.
  intros Hnd0 Hel Hs H. destruct (default_rule_dH tpl rc l r Hnd0 Hel Hs H) as (R & K & NR & NK & Memb & HK & E).
  exists R, K. split; [exact NR|]. split; [exact NK|]. split; [exact Memb|]. split; [exact HK|]. intros Hval. rewrite E. clear E Memb NR HK.
  induction R as [|h R IH]; [reflexivity|]. cbn [fold_right]. rewrite (Hval h (or_introl eq_refl)), IH by (intros; apply Hval; right; assumption). lia.
Qed.
