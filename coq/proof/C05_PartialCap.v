(** C05 — REFUTED for the option combination SynReactor(partial=True, embed_threshold=k): the reactor turns the cap into a
    result limit  max_results = k / 100  for the partial-matching engine, and a result limit keeps the FIRST matches in
    enumeration order.  Which matches these are depends on the order in which the atoms of the substrate are stored,
    i.e. on how the substrate SMILES is written (known finding "partial-capped:invariant-rewriting"; the code is kept:
    Synthesis/Reactor/rbl_engine.py relies on this work limit).
    Witness at model level (the model enumerates in node-list order, VF2 in its own order — the phenomenon is the same and
    is replayed on the implementation by corpus/regress/C05/partial_capped.json): thiol dimerisation
    [C:1][SH:2].[C:3][SH:4]>>[C:1][S:2][S:4][C:3] (centre = the two sulfur atoms) on CCS.CS with embed_threshold = 100,
    i.e. max_results = 1: the substrate stored in the order 1..5 gives the single partial match S2 -> atom 3 (the thiol
    of CCS), the same substrate stored in reverse order gives S2 -> atom 5 (the thiol of CS).  Without the option both
    orders give the same 6 matches. *)
From Coq Require Import List ZArith Permutation.
From SK Require Import lib.LGraph.
From SK Require Import model.C03_Model model.C05_Model proof.C05_Order proof.C05_Rewrite proof.C05_Partial proof.C05_PartialOrder.
Import ListNotations.

Definition px_host2 : hostg := LG (rev (gnodes px_host)) (rev (gedges px_host)).

Lemma px_same : same_graph px_host px_host2.
Proof. apply same_hostb_ok. vm_compute. reflexivity. Qed.


Lemma partial_capped_order_refuted :
  exists (host host' : hostg) (pat : molg),
    same_graph host host' /\ gnodes host' <> gnodes host /\
    pmax_of (Some 100%N) = 1%N /\
    @partial_matches (thr_of (Some 100%N)) 0%N host pat = Some [[(2%N, 3%N)]] /\
    @partial_matches (thr_of (Some 100%N)) 0%N host' pat = Some [[(2%N, 5%N)]] /\
    (exists r r', @partial_matches (thr_of None) 0%N host pat = Some r /\ @partial_matches (thr_of None) 0%N host' pat = Some r' /\
                  length r = 6%nat /\ Permutation r r').
Proof.
  exists px_host, px_host2, (p_pat px_p).
  split; [exact px_same|]. split; [vm_compute; discriminate|]. split; [reflexivity|].
  split; [vm_compute; reflexivity|]. split; [vm_compute; reflexivity|].
  eexists. eexists. split; [vm_compute; reflexivity|]. split; [vm_compute; reflexivity|]. split; [reflexivity|].
  (* the second listing is the first with its entries swapped two by two *)
  repeat (eapply perm_trans; [apply perm_swap|]; do 2 apply perm_skip). apply perm_nil.
Qed.

(** non-vacuity of [partial_matches_host_order]: without a result limit the two stored orders list the same 6 partial
    matches, in different orders *)
Example partial_order_nonvacuous :
  same_graph px_host px_host2 /\
  @partial_matches (thr_of None) 0%N px_host2 (p_pat px_p) <> @partial_matches (thr_of None) 0%N px_host (p_pat px_p) /\
  match @partial_matches (thr_of None) 0%N px_host (p_pat px_p), @partial_matches (thr_of None) 0%N px_host2 (p_pat px_p) with
  | Some r, Some r' => length r = 6%nat /\ forall m, In m r <-> In m r'
  | _, _ => False
  end.
Proof.
  split; [exact px_same|]. split; [vm_compute; discriminate|].
  pose proof (@partial_matches_host_order (thr_of None) px_host px_host2 (p_pat px_p) eq_refl px_same) as H.
  destruct (@partial_matches (thr_of None) 0%N px_host (p_pat px_p)) as [r|] eqn:E1; [|vm_compute in E1; discriminate].
  destruct (@partial_matches (thr_of None) 0%N px_host2 (p_pat px_p)) as [r'|] eqn:E2; [|destruct H].
  split; [|exact H]. vm_compute in E1. injection E1 as <-. reflexivity.
Qed.
