(** C20 — call histories on one PathwayRealizability object: after ANY sequence of is_realizable /
    is_scaled_realizable / is_borrow_realizable / certificate / build / reload calls the object's flow, net and
    markings are those of a fresh object ([like_fresh]: equal up to the certificate field), every answer is the answer
    a fresh object gives (history independence), and a certificate stored by a plain search is a certificate of the
    flow that is loaded at that moment. *)
From Coq Require Import ZArith List.
Import ListNotations.
From SK Require Import model.C20_Model proof.C20_Spec proof.C20_Main proof.C20_Run.
Local Open Scope nat_scope.

(** ** Specification side: what a history means, read off the list of calls alone *)

(** the flow that is loaded after the calls [ops] (initially [fl]) *)
Fixpoint last_flow (fl : list Z) (ops : list pr_op) : list Z :=
  match ops with
  | [] => fl
  | OpLoad f :: ops' => last_flow f ops'
  | _ :: ops' => last_flow fl ops'
  end.

(** is a net built after the calls [ops] (initially [b])?  A reload clears it; an explicit build and a
    scaled search leave one behind; the other calls do not touch it. *)
Fixpoint built_after (b : bool) (ops : list pr_op) : bool :=
  match ops with
  | [] => b
  | OpLoad _ :: ops' => built_after false ops'
  | OpBuild :: ops' => built_after true ops'
  | OpScaled _ :: ops' => built_after true ops'
  | OpBorrow _ :: ops' => built_after true ops'
  | _ :: ops' => built_after b ops'
  end.

(** does the certificate field stem from a plain search (or is it empty)?  is_borrow_realizable leaves the sequence of its
    last search — found with borrowed tokens in both markings — behind; every other writer overwrites or clears it. *)
Fixpoint cert_plain (b : bool) (ops : list pr_op) : bool :=
  match ops with
  | [] => b
  | OpBorrow _ :: ops' => cert_plain false ops'
  | OpCert :: ops' => cert_plain b ops'
  | _ :: ops' => cert_plain true ops'
  end.

(** a fresh object: loaded with [fl], and built when [b] *)
Definition fresh (cf : pr_config) (V : list N) (E : list edge) (fl : list Z) (b : bool) : pr_state :=
  if b then do_build V E (pr_loaded fl) else pr_loaded fl.

Lemma do_build_flow (cf : pr_config) V E st st' : pr_flow st = pr_flow st' -> do_build V E st = do_build V E st'.
Proof. intros H. unfold do_build. now rewrite H. Qed.

Section History.
Variables (cf : pr_config) (V : list N) (E : list edge).

(** the certificate field is empty or holds a sequence found by a search on the net of the loaded flow *)
Definition cert_of_flow (fl : list Z) (c : option (list N)) : Prop :=
  forall s, c = Some s ->
  exists ms md, bo_verdict (is_realizable (build_petri_net_from_flow V E fl) ms md) = Found s.

(** state = fresh object up to the certificate field *)
Definition like_fresh (fl : list Z) (b cp : bool) (st : pr_state) : Prop :=
  pr_flow st = fl /\ pr_built st = pr_built (fresh cf V E fl b) /\ (cp = true -> cert_of_flow fl (pr_cert st)) /\
  (cp = false -> b = true).        (* a borrow leaves a built object behind; only a reload un-builds, and it clears the field *)

(** ** The scaled search leaves exactly the fresh built state, whatever state it starts from, and its answer does not depend
    on that state either *)

Lemma scaled_loop_fresh saved n : forall st st' k,
  fst (scaled_loop cf V E saved st k n) = fresh cf V E saved true /\
  snd (scaled_loop cf V E saved st k n) = snd (scaled_loop cf V E saved st' k n).
Proof.
  induction n as [|n IH]; intros st st' k; simpl.
  - split; reflexivity.
  - unfold do_real, do_build, set_flow; simpl.
    destruct (bo_verdict (is_realizable _ (cfg_states cf) (cfg_depth cf))); simpl; try apply IH.
    split; reflexivity.
Qed.

(** ** The borrow search: flow untouched, net rebuilt from the flow, the SAVED markings put back *)

Lemma borrow_loop_state species M0s MTs combs : forall st,
  pr_built st = Some (Built (b_net (build_petri_net_from_flow V E (pr_flow st))) M0s MTs) ->
  let r := fst (borrow_loop cf V E species M0s MTs st combs) in
  pr_flow r = pr_flow st /\
  pr_built r = Some (Built (b_net (build_petri_net_from_flow V E (pr_flow st))) M0s MTs).
Proof.
  induction combs as [|comb combs IH]; intros st Hb; simpl.
  - split; [reflexivity|exact Hb].
  - destruct (bo_verdict (is_realizable _ (cfg_states cf) (cfg_depth cf))); simpl;
      try (split; reflexivity); apply (IH (PR _ _ _)); reflexivity.
Qed.

Lemma borrow_loop_ans species M0s MTs combs st st' :
  pr_flow st = pr_flow st' ->
  snd (borrow_loop cf V E species M0s MTs st combs) = snd (borrow_loop cf V E species M0s MTs st' combs).
Proof.
  intros H. destruct combs as [|comb combs]; simpl; [reflexivity|]. rewrite H. reflexivity.
Qed.

Lemma built_eta b : Built (b_net b) (b_M0 b) (b_MT b) = b.
Proof. now destruct b. Qed.

(** ** One call preserves "like a fresh object" *)

Lemma fresh_like_fresh fl b : like_fresh fl b true (fresh cf V E fl b).
Proof.
  split; [now destruct b|]. split; [reflexivity|]. split; [|discriminate].
  intros _ s Hs. destruct b; discriminate.
Qed.

Lemma step_like_fresh fl b cp st op :
  like_fresh fl b cp st ->
  like_fresh (last_flow fl [op]) (built_after b [op]) (cert_plain cp [op]) (fst (pr_step cf V E st op)).
Proof.
  intros (Hf & Hb & Hc & Hcb). unfold like_fresh.
  destruct op as [ms md|k| | |f|mb]; simpl.
  - unfold do_real. destruct (pr_built st) as [bt|] eqn:Eb; simpl.
    + split; [exact Hf|split; [|split; [|discriminate]]].
      * rewrite <- Hb. reflexivity.
      * intros _ s Hs. destruct b; simpl in Hb; [|discriminate].
        injection Hb as ->. rewrite <- Hf.
        destruct (bo_verdict _) eqn:Ev; try discriminate. injection Hs as ->.
        exists ms, md. rewrite Hf in *. exact Ev.
    + split; [exact Hf|split; [rewrite Eb; exact Hb|split; [|discriminate]]].
      intros _. destruct b; simpl in Hb; [discriminate|].
      destruct cp; [exact (Hc eq_refl)|]. specialize (Hcb eq_refl). discriminate.
  - rewrite (proj1 (scaled_loop_fresh (pr_flow st) k st st 1%N)), Hf. apply fresh_like_fresh.
  - split; [exact Hf|split; [exact Hb|split; [exact Hc|exact Hcb]]].
  - unfold do_build. rewrite Hf. apply (fresh_like_fresh fl true).
  - apply (fresh_like_fresh f false).
  - unfold do_borrow.
    assert (E0 : exists st0, (match pr_built st with None => do_build V E st | Some _ => st end) = st0 /\
                 pr_flow st0 = fl /\ pr_built st0 = Some (build_petri_net_from_flow V E fl)).
    { destruct (pr_built st) as [bt|] eqn:Eb.
      - exists st. split; [reflexivity|split; [exact Hf|]]. rewrite Eb. destruct b; simpl in Hb; [exact Hb|discriminate].
      - exists (do_build V E st). split; [reflexivity|]. unfold do_build. simpl. now rewrite Hf. }
    destruct E0 as (st0 & -> & Hf0 & Hb0). rewrite Hb0.
    pose proof (borrow_loop_state (sorted_vertices V) (b_M0 (build_petri_net_from_flow V E fl))
                  (b_MT (build_petri_net_from_flow V E fl))
                  (borrow_vectors mb (length (sorted_vertices V))) st0) as H.
    rewrite Hf0 in H. rewrite built_eta in H. specialize (H Hb0). destruct H as [H1 H2].
    split; [exact H1|split; [exact H2|split; [discriminate|reflexivity]]].
Qed.

Lemma exec_like_fresh ops : forall fl b cp st,
  like_fresh fl b cp st ->
  like_fresh (last_flow fl ops) (built_after b ops) (cert_plain cp ops) (pr_exec cf V E st ops).
Proof.
  induction ops as [|op ops IH]; intros fl b cp st H; simpl.
  - exact H.
  - unfold pr_exec. simpl. fold (pr_exec cf V E (fst (pr_step cf V E st op)) ops).
    pose proof (step_like_fresh fl b cp st op H) as H1.
    specialize (IH _ _ _ _ H1). destruct op; exact IH.
Qed.

(** the answer of a call is a function of the built net (is_realizable), of the flow alone (scaled and borrow
    search), of the certificate field (certificate) — never of anything else in the state *)
Lemma answer_like_fresh fl b cp st op :
  like_fresh fl b cp st ->
  snd (pr_step cf V E st op) =
  match op with
  | OpCert => ACert (pr_cert st)
  | _ => snd (pr_step cf V E (fresh cf V E fl b) op)
  end.
Proof.
  intros (Hf & Hb & Hc & _). destruct op as [ms md|k| | |f|mb]; simpl.
  - unfold do_real. rewrite Hb. destruct (pr_built (fresh cf V E fl b)); reflexivity.
  - rewrite Hf. replace (pr_flow (fresh cf V E fl b)) with fl by (destruct b; reflexivity).
    apply scaled_loop_fresh.
  - reflexivity.
  - reflexivity.
  - reflexivity.
  - unfold do_borrow. destruct b; simpl in Hb |- *; rewrite Hb; simpl; rewrite ?Hb; simpl.
    + apply borrow_loop_ans. exact Hf.
    + rewrite Hf. apply borrow_loop_ans. exact Hf.
Qed.

(** ** Connecting [pr_run] (what the correspondence evaluates) with [pr_exec] / [pr_step] *)

Lemma pr_run_eq ops : forall st,
  pr_run cf V E st ops = run (pr_step cf V E) (fun r => (snd r, fst r)) st ops.
Proof.
  induction ops as [|op ops IH]; intros st; simpl; [reflexivity|].
  destruct (pr_step cf V E st op). simpl. now rewrite IH.
Qed.

Lemma pr_run_nth st ops1 op ops2 :
  nth_error (pr_run cf V E st (ops1 ++ op :: ops2)) (length ops1) =
  Some (snd (pr_step cf V E (pr_exec cf V E st ops1) op), fst (pr_step cf V E (pr_exec cf V E st ops1) op)).
Proof. rewrite pr_run_eq. apply (run_nth (pr_step cf V E)). Qed.

Lemma main_history_state :
  forall (flow : list Z) (ops : list pr_op),
  let st := pr_exec cf V E (pr_loaded flow) ops in
  let fl := last_flow flow ops in
  pr_flow st = fl /\
  pr_built st = (if built_after false ops then Some (build_petri_net_from_flow V E fl) else None) /\
  (forall sq, cert_plain true ops = true -> pr_cert st = Some sq ->
     realizes E fl sq /\
     ((forall e, In e E -> NoDup (map fst (fst e))) -> Forall nonneg (markings_along E zero sq))).
Proof.
  intros flow ops st fl.
  destruct (exec_like_fresh ops flow false true (pr_loaded flow) (fresh_like_fresh flow false)) as (Hf & Hb & Hc & _).
  fold st fl in Hf, Hb, Hc. split; [exact Hf|split].
  - rewrite Hb. unfold fresh. destruct (built_after false ops); reflexivity.
  - intros sq Hp Hs. destruct (Hc Hp sq Hs) as (ms & md & Hv).
    exact (realizable_sound V E fl ms md sq Hv).
Qed.

Lemma main_history_independence :
  forall (flow : list Z) (ops1 : list pr_op) (op : pr_op) (ops2 : list pr_op),
  let st := pr_exec cf V E (pr_loaded flow) ops1 in
  let fr := fresh cf V E (last_flow flow ops1) (built_after false ops1) in
  nth_error (pr_run cf V E (pr_loaded flow) (ops1 ++ op :: ops2)) (length ops1) =
    Some (snd (pr_step cf V E st op), fst (pr_step cf V E st op)) /\
  snd (pr_step cf V E st op) =
    match op with
    | OpCert => ACert (pr_cert st)
    | _ => snd (pr_step cf V E fr op)
    end /\
  pr_flow (fst (pr_step cf V E st op)) = pr_flow (fst (pr_step cf V E fr op)) /\
  pr_built (fst (pr_step cf V E st op)) = pr_built (fst (pr_step cf V E fr op)).
Proof.
  intros flow ops1 op ops2 st fr.
  pose proof (exec_like_fresh ops1 flow false true (pr_loaded flow) (fresh_like_fresh flow false)) as H. fold st in H.
  split; [apply pr_run_nth|split; [exact (answer_like_fresh _ _ _ st op H)|]].
  pose proof (step_like_fresh _ _ _ st op H) as (Hf1 & Hb1 & _).
  pose proof (fresh_like_fresh (last_flow flow ops1) (built_after false ops1)) as Hfr. fold fr in Hfr.
  pose proof (step_like_fresh _ _ _ fr op Hfr) as (Hf2 & Hb2 & _).
  split; congruence.
Qed.
End History.

(** ** Non-vacuity: the catalyst pathway  {} -> X,  2X -> 2X + P,  P -> {},  X -> {}  with flow 1,1,1,1 is not
    realizable as it is, twice the flow is; after the scaled search the object still answers "not
    realizable" for the loaded flow, exactly like a fresh object. *)
Definition ex_V : list N := [0%N; 1%N].
Definition ex_E : list edge :=
  [ ([], [(0%N, 1%Z)]); ([(0%N, 2%Z)], [(0%N, 2%Z); (1%N, 1%Z)]); ([(1%N, 1%Z)], []); ([(0%N, 1%Z)], []) ].
Definition ex_flow : list Z := [1%Z; 1%Z; 1%Z; 1%Z].
Definition ex_ops : list pr_op :=
  [OpBuild; OpScaled 3; OpReal DEFAULT_MAX_STATES DEFAULT_MAX_DEPTH; OpCert;
   OpLoad [2%Z; 2%Z; 2%Z; 2%Z]; OpReal 1000 1000; OpBuild; OpReal 1000 1000; OpCert].
Definition ex_answers : list pr_ans := map fst (pr_run cfg_default ex_V ex_E (pr_loaded ex_flow) ex_ops).

Example ex_history_answers :
  ex_answers =
  [ADone; AScaled (Some 2%N); AReal NotFound; ACert None; ADone; AErr; ADone;
   AReal (Found [0;0;1;1;2;2;3;3]%N); ACert (Some [0;0;1;1;2;2;3;3]%N)].
Proof. vm_compute. reflexivity. Qed.

Example ex_history_state_nonvacuous :
  pr_cert (pr_exec cfg_default ex_V ex_E (pr_loaded ex_flow) ex_ops) = Some [0;0;1;1;2;2;3;3]%N /\
  last_flow ex_flow ex_ops = [2%Z; 2%Z; 2%Z; 2%Z] /\ built_after false ex_ops = true.
Proof. vm_compute. repeat split. Qed.

(** Non-vacuity for the borrow search: autocatalysis  A + X -> 2 X,  {} -> A,  X -> {}  with flow 1,1,1 is not realizable,
    with one borrowed X it is; the sequence the borrow search leaves in the certificate field ([feed; auto; out]) is NOT an
    ordering of the plain pathway (auto needs an X first) — [cert_plain] is false at that point — and a following plain
    search answers "not realizable" and clears the field, exactly like a fresh object. *)
Definition exb_V : list N := [0%N; 1%N].
Definition exb_E : list edge :=
  [ ([(0%N, 1%Z); (1%N, 1%Z)], [(1%N, 2%Z)]); ([], [(0%N, 1%Z)]); ([(1%N, 1%Z)], []) ].
Definition exb_flow : list Z := [1%Z; 1%Z; 1%Z].
Definition exb_ops : list pr_op :=
  [OpBuild; OpReal DEFAULT_MAX_STATES DEFAULT_MAX_DEPTH; OpBorrow 1; OpCert;
   OpReal DEFAULT_MAX_STATES DEFAULT_MAX_DEPTH; OpCert].
Definition exb_answers : list pr_ans := map fst (pr_run cfg_default exb_V exb_E (pr_loaded exb_flow) exb_ops).

Example ex_borrow_history :
  exb_answers = [ADone; AReal NotFound; ABorrow (Some [0%Z; 1%Z]); ACert (Some [1%N; 0%N; 2%N]); AReal NotFound; ACert None] /\
  cert_plain true (firstn 4 exb_ops) = false /\ cert_plain true exb_ops = true.
Proof. vm_compute. repeat split. Qed.
