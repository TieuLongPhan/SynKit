(** C04 — what the search engine returns is a valid match of the RULE: a monomorphism of the translated pattern into the
    translated substrate (C06's specification) satisfies the reactor's predicates on the rule's reactant side ([match_rcb]),
    for a rule whose pattern is its reactant side in both directions ([left_of] and [left_onto]); the default-mode
    preparation returns such a pair. *)
From Coq Require Import List NArith ZArith Bool Lia Permutation.
From SK Require Import lib.LGraph model.C06_Model lib.C06_Spec model.C03_Model model.C04_Reactor proof.C03_Proof proof.C03_Glue proof.C03_StripExact
                       proof.C04_Glue proof.C04_Default proof.C04_Engine proof.C04_DefaultChain.
Import ListNotations.
Local Open Scope Z_scope.

(** every bond of the rule that exists on the reactant side is a bond of the pattern with that order *)
Definition left_onto (rc : its) (l : molg) : Prop :=
  forall u v x, In (u, v, x) (gedges rc) -> 0 < eG x -> LGraph.adj l u v = Some (eG x).

Lemma leqb_eq a : forall b, C06_Model.leqb a b = true -> a = b.
Proof.
  induction a as [|x r IH]; intros [|y s] E; simpl in E; try discriminate; [reflexivity|].
  apply andb_prop in E. destruct E as [E1 E2]. apply N.eqb_eq in E1. rewrite E1, (IH s E2). reflexivity.
Qed.

Section MonoMatch.
  Variables (host : hostg) (rc : its) (l : molg) (y : C03_Model.mapping).
  Hypothesis Hwh : wf_hostb host = true.
  Hypothesis Hhc : forall n a, label host n = Some a -> 0 <= a_hc a.
  Hypothesis Hwr : wf_rcb rc = true.
  Hypothesis Hcl : forall u v x, In (u, v, x) (gedges rc) -> In u (node_ids rc) /\ In v (node_ids rc).
  Hypothesis LO : left_of rc l.
  Hypothesis LT : left_onto rc l.
  Hypothesis Hnn : forall k la, label l k = Some la -> 0 <= m_hc la.
  Hypothesis Hmono : is_mono (tr_host host) (tr_pat l) y.

  Let Nrc : NoDup (node_ids rc) := wf_rc_nodup rc Hwr.
  Let Nl : NoDup (node_ids l).
  Proof. rewrite (lo_ids _ _ LO). exact Nrc. Qed.

  Lemma mono_image p : In p (node_ids rc) -> exists h, In (p, h) y /\ mget y p = Some h.
  Proof.
    intros Ip. destruct Hmono as (K1 & K2 & _). rewrite tr_pat_ids, (lo_ids _ _ LO) in K2.
    apply K2 in Ip. apply in_map_iff in Ip. destruct Ip as ([p' h] & E & I). simpl in E. subst p'.
    exists h. split; [exact I|]. unfold mget. apply assoc_nodup_in; [exact K1|exact I].
  Qed.

  Theorem mono_is_match : match_rcb host rc y = true.
  Proof.
    destruct Hmono as (K1 & K2 & K3 & K4 & K5). rewrite tr_pat_ids, (lo_ids _ _ LO) in K2. rewrite tr_host_ids in K4.
    unfold match_rcb. apply andb_true_intro; split; [apply andb_true_intro; split; [apply andb_true_intro; split; [apply andb_true_intro; split|]|]|].
    - apply NoDup_nodupb. exact K1.
    - apply NoDup_nodupb. exact K3.
    - apply Nat.eqb_eq.
      assert (P : Permutation (map fst y) (node_ids rc)) by (apply NoDup_Permutation; [exact K1|exact Nrc|exact K2]).
      apply Permutation_length in P. unfold node_ids in P. rewrite !map_length in P. exact P.
    - apply forallb_forall. intros [k a] I. unfold rc_node_okb. cbn [fst snd].
      assert (Ik : In k (node_ids rc)) by (unfold node_ids; change k with (fst (k, a)); apply in_map; exact I).
      destruct (mono_image k Ik) as (h & Ih & Eh). rewrite Eh.
      destruct (K4 k h Ih) as [Hin Hnm].
      destruct (in_ids_label host h Hin) as [x Ex]. rewrite Ex.
      assert (Ikl : In k (node_ids l)) by (rewrite (lo_ids _ _ LO); exact Ik).
      destruct (in_ids_label l k Ikl) as [la Ela].
      destruct (lo_nodes _ _ LO k la (assoc_in k (gnodes l) Ela)) as (a' & Ea' & E1 & E2 & E3).
      assert (a' = a) by (pose proof (label_in rc k a Nrc I); congruence). subst a'.
      unfold nm, lab in Hnm. rewrite label_tr_host, label_tr_pat, Ex, Ela in Hnm. cbn [option_map fst snd] in Hnm.
      apply andb_prop in Hnm. destruct Hnm as [Hl Hc]. apply leqb_eq in Hl. inversion Hl as [[Q1 Q2]]. apply chcode_inj in Q2.
      apply N.leb_le in Hc. pose proof (Hhc h x Ex). pose proof (Hnn k la Ela).
      rewrite <- E1, <- E2, <- E3, Q1, Q2, N.eqb_refl, Z.eqb_refl. cbn [andb]. apply Z.leb_le. lia.
    - apply forallb_forall. intros [[u v] x] I. unfold rc_edge_okb.
      destruct (Hcl u v x I) as [Iu Iv]. destruct (mono_image u Iu) as (hu & Ihu & Eu). destruct (mono_image v Iv) as (hv & Ihv & Ev).
      rewrite Eu, Ev. destruct (0 <? eG x) eqn:Ep; [|reflexivity]. apply Z.ltb_lt in Ep.
      pose proof (LT u v x I Ep) as Ea.
      assert (Eap : LGraph.adj (tr_pat l) u v = Some [Z.to_N (eG x)]).
      { unfold LGraph.adj, tr_pat; cbn [gedges]. rewrite tr_adj. unfold LGraph.adj in Ea. rewrite Ea. reflexivity. }
      destruct (K5 u hu v hv _ Ihu Ihv Eap) as (b' & Eb & Em). unfold em in Em. apply leqb_eq in Em. subst b'.
      unfold LGraph.adj, tr_host in Eb; cbn [gedges] in Eb. rewrite tr_adj in Eb.
      destruct (find_edge hu hv (gedges host)) as [o|] eqn:Eo; [|discriminate]. cbn [option_map] in Eb. inversion Eb as [Q].
      unfold LGraph.adj. rewrite Eo. apply Z.eqb_eq.
      assert (0 < o) by exact (wf_host_pos host hu hv o Hwh Eo). lia.
  Qed.
End MonoMatch.

(** the default-mode preparation: every reactant-side bond of the rule is a bond of the stripped pattern *)
Theorem default_left_onto (tpl rc : its) (l r : molg) :
  wf_rcb tpl = true -> (forall k a, In (k, a) (gnodes tpl) -> a_el (iH a) = a_el (iG a)) ->
  synrule tpl true = Some (rc, l, r) -> left_onto rc l.
Proof.
  intros Hw Hel H u v x I Hpos.
  pose proof (NoDup_nodupb _ (wf_rc_nodup tpl Hw)) as Hnd0.
  destruct (synrule_default_exact tpl rc l r Hnd0 Hel H) as (R & _ & (_ & Erc) & (_ & El) & _).
  rewrite Erc in I. apply filter_In in I. destruct I as [I K]. unfold keepe in K. cbn [fst snd] in K.
  apply andb_prop in K. destruct K as [K1 K2]. apply negb_true_iff in K1, K2.
  unfold LGraph.adj. rewrite El. rewrite find_edge_mkeepe by (intros J; apply mem_spec in J; congruence).
  pose proof (simpleP_of_b (gedges tpl) (wf_rc_simple tpl Hw)) as Hs.
  change (find_edge u v (gedges (side0 iG eG tpl))) with (LGraph.adj (dec_side iG eG tpl) u v).
  rewrite (dec_adj iG eG tpl u v Hs). unfold LGraph.adj. rewrite (simple_in_find (gedges tpl) u v x Hs I).
  apply Z.ltb_lt in Hpos. rewrite Hpos. reflexivity.
Qed.
