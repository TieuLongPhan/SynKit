(** C03 — corollaries of the exact characterisation of default-mode rule preparation, in the pointwise forms C04 uses:
    totality, node ids, per-atom labels and hydrogen counts, the left pattern, counts as adjacency indicators. *)
From Coq Require Import List NArith ZArith Bool Lia.
From SK Require Import lib.Tok lib.LGraph model.C03_Model proof.C03_Proof proof.C03_Glue proof.C03_Backward proof.C03_Skeleton
                       proof.C03_StripCounts proof.C03_StripExact proof.C03_Default.
Import ListNotations.
Local Open Scope Z_scope.

(** * totality *)
Lemma sh_fold_total l r ns : (forall n, In n ns -> has_node l n = true) -> exists hs, fold_right (sh_step l r) (Some []) ns = Some hs.
Proof.
  induction ns as [|n ns IH]; intros H; [exists []; reflexivity|]. cbn [fold_right].
  destruct IH as [acc E]; [intros; apply H; right; assumption|]. rewrite E. unfold sh_step.
  destruct (has_node r n) eqn:En; [|eauto]. unfold fully_removable. rewrite !removable_on_spec, (H n (or_introl eq_refl)), En.
  destruct (heavy_nbr l n); [destruct (heavy_nbr r n)|]; eauto.
Qed.

Lemma refresh_types_total (rc : its) (l r : molg) :
  (forall k, In k (node_ids rc) -> has_node l k = true /\ has_node r k = true) -> exists rc', refresh_types rc l r = Some rc'.
Proof.
  unfold refresh_types. intros H.
  match goal with |- context [fold_right ?f _ _] => set (F := f) end.
  assert (E : exists ns, fold_right F (Some []) (gnodes rc) = Some ns).
  { unfold node_ids in H. induction (gnodes rc) as [|[k a] r0 IH]; [exists []; reflexivity|]. cbn [fold_right].
    destruct IH as [ns E]; [intros k0 I; apply H; right; exact I|]. rewrite E. unfold F at 1. cbn [fst snd].
    destruct (H k (or_introl eq_refl)) as [H1 H2]. unfold has_node in H1, H2.
    destruct (label l k); [|discriminate]. destruct (label r k); [|discriminate]. eauto. }
  destruct E as [ns E]. rewrite E. eauto.
Qed.

Lemma Forall2_in_r {A B} (R : A -> B -> Prop) l1 l2 q : Forall2 R l1 l2 -> In q l2 -> exists p, In p l1 /\ R p q.
Proof. induction 1 as [|x y l1 l2 Hxy _ IH]; intros I; [destruct I|]. destruct I as [<-|I]; [eauto using in_eq|]. destruct (IH I) as (p & Ip & Rp). eauto using in_cons. Qed.

Theorem synrule_default_total (tpl : its) :
  nodupb (node_ids tpl) = true -> (forall k a, In (k, a) (gnodes tpl) -> a_el (iH a) = a_el (iG a)) ->
  exists rc l r, synrule tpl true = Some (rc, l, r).
Proof.
  intros Hnd Hel. apply nodupb_NoDup in Hnd.
  destruct (sh_fold_total (side0 iG eG tpl) (side0 iH eH tpl) (h_nodes_m (side0 iG eG tpl))) as [hs Eh].
  { intros n I. apply (proj1 (h_nodes_isH (side0 iG eG tpl) n (NL0 tpl Hnd))) in I. unfold is_H_m in I. unfold has_node.
    destruct (label (side0 iG eG tpl) n); [reflexivity|discriminate]. }
  rewrite <- shared_h_unfold in Eh.
  pose proof (strip_value tpl Hnd Hel hs Eh) as Ev. destruct (strip_steps tpl Hnd Hel hs Eh) as ([I1 I2 I3 _ _] & _).
  unfold synrule. cbn [negb]. unfold its_decompose. rewrite Ev. destruct (run2 tpl hs) as [[rc1 l1] r1]. unfold tl_, tr_ in *. cbn [fst snd] in *.
  destruct (refresh_types_total rc1 l1 r1) as [rc' Er]; [|rewrite Er; eauto].
  intros k Ik. rewrite (skel_ids_filter tpl rc1 _ I1) in Ik. split; apply has_node_in.
  - rewrite (mskel_ids_filter _ l1 _ I2), side0_ids_G. exact Ik.
  - rewrite (mskel_ids_filter _ r1 _ I3), side0_ids_H. exact Ik.
Qed.

(** the node of a side graph of the prepared rule that belongs to a kept template atom *)
Lemma mskel_side_node tpl (sn : inode -> nattr) (se : iedge -> Z) (g : molg) R k a0 la : NoDup (node_ids tpl) ->
  gnodes (side0 sn se tpl) = map (fun p => (fst p, n0 sn (snd p))) (gnodes tpl) ->
  mskel (side0 sn se tpl) g R -> In (k, a0) (gnodes tpl) -> label g k = Some la ->
  m_hc la = (if N.eqb (a_el (sn a0)) EL_H then 0 else sum_cnt (gedges (side0 sn se tpl)) R k) /\
  m_el la = a_el (sn a0) /\ m_ch la = a_ch (sn a0).
Proof.
  intros Hnd En [S1 _] Ia Hl. unfold label in Hl. apply assoc_in in Hl.
  destruct (Forall2_in_l _ _ _ _ S1 Hl) as ([k' q] & Iq & (E1 & E2 & _ & E4 & E5)). cbn [fst snd] in *. subst k'.
  apply filter_In in Iq. destruct Iq as [Iq _]. rewrite En in Iq. apply in_map_iff in Iq. destruct Iq as ([k2 a2] & E & I2'). cbn [fst snd] in E.
  inversion E; subst k2 q. clear E.
  assert (a2 = a0).
  { pose proof (assoc_nodup_in k (gnodes tpl) a2 Hnd I2') as X1. pose proof (assoc_nodup_in k (gnodes tpl) a0 Hnd Ia) as X2. congruence. }
  subst a2. unfold is_Hm in E5. cbn [n0 m_hc m_el m_ch] in E5, E2, E4.
  split; [rewrite E5; destruct (N.eqb (a_el (sn a0)) EL_H); lia|split; assumption].
Qed.

(** * the prepared rule, atom by atom *)
Theorem synrule_default_pointwise (tpl rc : its) (l r : molg) :
  nodupb (node_ids tpl) = true -> (forall k a, In (k, a) (gnodes tpl) -> a_el (iH a) = a_el (iG a)) ->
  synrule tpl true = Some (rc, l, r) ->
  exists R : list N,
    NoDup R /\
    (forall h, In h R <-> is_H_i tpl h = true /\ heavy_nbr (side0 iG eG tpl) h = true /\ heavy_nbr (side0 iH eH tpl) h = true) /\
    node_ids rc = filter (fun n => negb (mem n R)) (node_ids tpl) /\ node_ids l = node_ids rc /\ node_ids r = node_ids rc /\
    NoDup (node_ids rc) /\ gedges rc = filter (keepe R) (gedges tpl) /\
    (forall k a0, label tpl k = Some a0 -> ~ In k R ->
       exists a, label rc k = Some a /\ set_hc (iG a) 0 = set_hc (iG a0) 0 /\ set_hc (iH a) 0 = set_hc (iH a0) 0 /\
                 a_hc (iG a) = (if N.eqb (a_el (iG a0)) EL_H then 0 else sum_cnt (gedges (side0 iG eG tpl)) R k) /\
                 a_hc (iH a) = (if N.eqb (a_el (iG a0)) EL_H then 0 else sum_cnt (gedges (side0 iH eH tpl)) R k)) /\
    ((forall h, is_H_i tpl h = true -> In h R) -> has_XH l = false /\ h_to_implicit l = l).
Proof.
  intros Hnd0 Hel H. pose proof (nodupb_NoDup _ Hnd0) as Hnd.
  destruct (synrule_default_exact_nodup tpl rc l r Hnd0 Hel H) as (R & NR & Memb & (KK & Ke) & (L1 & L2) & (R1 & R2) & Fc). clear H.
  pose proof (Build_mskel _ _ _ L1 L2) as I2. pose proof (Build_mskel _ _ _ R1 R2) as I3.
  assert (Eids : node_ids rc = filter (fun n => negb (mem n R)) (node_ids tpl)).
  { unfold node_ids. rewrite (Forall2_ids _ _ _ (fun p q (Hs : same_core p q) => proj1 Hs) KK). apply (ids_filter (fun n => negb (mem n R))). }
  assert (Nrc : NoDup (node_ids rc)) by (rewrite Eids; apply NoDup_filter; exact Hnd).
  assert (Eidl : node_ids l = node_ids rc).
  { rewrite Eids, (mskel_ids_filter _ l _ I2), side0_ids_G. reflexivity. }
  assert (Eidr : node_ids r = node_ids rc).
  { rewrite Eids, (mskel_ids_filter _ r _ I3), side0_ids_H. reflexivity. }
  exists R. split; [exact NR|].
  split; [exact Memb|]. split; [exact Eids|]. split; [exact Eidl|]. split; [exact Eidr|]. split; [exact Nrc|].
  split; [exact Ke|]. split.
  - intros k a0 Hl HnR. unfold label in Hl. apply assoc_in in Hl.
    assert (Iq : In (k, a0) (filter (keepn R) (gnodes tpl))).
    { apply filter_In. split; [exact Hl|]. unfold keepn. cbn [fst]. rewrite mem_false by assumption. reflexivity. }
    destruct (Forall2_in_r _ _ _ _ KK Iq) as ([k' a] & Ia & (E1 & E2 & E3)). cbn [fst snd] in *. subst k'.
    exists a. split; [apply assoc_nodup_in; assumption|]. split; [exact E2|]. split; [exact E3|].
    destruct (Fc k a Ia) as (la & ra & Ll & Lr & Hg & Hh). rewrite Hg, Hh.
    destruct (mskel_side_node tpl iG eG l R k a0 la Hnd (side0_nodes_G tpl) I2 Hl Ll) as [A _].
    destruct (mskel_side_node tpl iH eH r R k a0 ra Hnd (side0_nodes_H tpl) I3 Hl Lr) as [B _]. rewrite (Hel k a0 Hl) in B. auto.
  - intros Hall.
    assert (NoH : forall x, is_H_m l x = false).
    { intros x. unfold is_H_m. destruct (label l x) as [la|] eqn:Ll; [|reflexivity].
      assert (Ix : In x (node_ids l)) by (apply has_node_in; unfold has_node; rewrite Ll; reflexivity).
      rewrite Eidl, Eids in Ix. apply filter_In in Ix. destruct Ix as [Ix Nx]. unfold node_ids in Ix. apply in_map_iff in Ix. destruct Ix as ([k a0] & E & Ia). cbn [fst] in E. subst k.
      destruct (mskel_side_node tpl iG eG l R x a0 la Hnd (side0_nodes_G tpl) I2 Ia Ll) as (_ & Ee & _). rewrite Ee.
      destruct (N.eqb (a_el (iG a0)) EL_H) eqn:EH; [|reflexivity]. exfalso.
      assert (HR : In x R) by (apply Hall; unfold is_H_i, label; rewrite (assoc_nodup_in x (gnodes tpl) a0 Hnd Ia); exact EH).
      apply negb_true_iff in Nx. apply mem_spec in HR. congruence. }
    split.
    + unfold has_XH. apply not_true_is_false. intros C. apply existsb_exists in C. destruct C as ([[u v] o] & _ & C).
      rewrite !NoH in C. discriminate.
    + unfold h_to_implicit. replace (h_nodes_m l) with (@nil N); [reflexivity|]. symmetry. unfold h_nodes_m.
      rewrite filter_nil; [reflexivity|]. intros [k la] Ik. cbn [snd].
      assert (Nl : NoDup (node_ids l)) by (rewrite Eidl; exact Nrc).
      pose proof (NoH k) as Hk. unfold is_H_m, label in Hk. rewrite (assoc_nodup_in k (gnodes l) la Nl Ik) in Hk. exact Hk.
Qed.

(** * the counts as sums of adjacency indicators *)
Lemma side0_edges sn se tpl :
  gedges (side0 sn se tpl) = flat_map (fun e : N * N * iedge => let '(u, v, x) := e in if 0 <? se x then [(u, v, se x)] else []) (gedges tpl).
Proof. reflexivity. Qed.

Lemma cnt_none (es : list (N * N * iedge)) (se : iedge -> Z) h k :
  (forall u v x, In (u, v, x) es -> peq u v h k = false) ->
  length (filter (fun e : N * N * Z => peq (fst (fst e)) (snd (fst e)) h k)
            (flat_map (fun e : N * N * iedge => let '(u, v, x) := e in if 0 <? se x then [(u, v, se x)] else []) es)) = 0%nat.
Proof.
  induction es as [|[[u v] x] r IH]; intros H; [reflexivity|]. cbn [flat_map]. rewrite filter_app, app_length, IH by (intros; eapply H; right; eauto).
  destruct (0 <? se x); [|reflexivity]. cbn [filter fst snd]. rewrite (H u v x (or_introl eq_refl)). reflexivity.
Qed.

Lemma cnt_indicator sn se tpl h k : simple_edgesb (gedges tpl) = true ->
  cnt (gedges (side0 sn se tpl)) h k = (if match adj tpl k h with Some x => 0 <? se x | None => false end then 1 else 0).
Proof.
  intros Hs. apply simpleP_of_b in Hs. unfold cnt, adj. rewrite side0_edges.
  induction (gedges tpl) as [|[[u v] x] r IH]; [reflexivity|]. cbn [pairs map fst] in Hs. destruct Hs as (_ & H2 & H3).
  cbn [flat_map]. rewrite find_edge_cons, filter_app, app_length, (peq_sym2 u v k h).
  destruct (peq u v h k) eqn:Ep.
  - rewrite cnt_none.
    + destruct (0 <? se x); cbn [filter fst snd length]; rewrite ?Ep; reflexivity.
    + intros u' v' x' I. apply (peq_false_trans u' v' u v h k); [|exact Ep]. apply H2. unfold pairs.
      change (u', v') with (fst (u', v', x')). apply in_map. exact I.
  - rewrite <- (IH H3). destruct (0 <? se x); cbn [filter fst snd length]; rewrite ?Ep; reflexivity.
Qed.

Theorem sum_cnt_adjacent sn se tpl R k : simple_edgesb (gedges tpl) = true ->
  sum_cnt (gedges (side0 sn se tpl)) R k
  = Z.of_nat (length (filter (fun h => match adj tpl k h with Some x => 0 <? se x | None => false end) R)).
Proof.
  intros Hs. induction R as [|h r IH]; [reflexivity|]. cbn [sum_cnt fold_right filter]. fold (sum_cnt (gedges (side0 sn se tpl)) r k).
  rewrite IH, (cnt_indicator sn se tpl h k Hs).
  destruct (match adj tpl k h with Some x => 0 <? se x | None => false end); cbn [length]; lia.
Qed.
