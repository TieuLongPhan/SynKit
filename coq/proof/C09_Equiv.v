(** C09 — the canonical reaction is atom-map-equivalent to the input: the ITS of the canonical graphs is isomorphic
    (typesGH and order pairs, i.e. what AAMValidator compares) to the ITS of the input graphs: it differs from the ITS of the
    renamed input graphs only in the order of the node list and in the atom_map attributes, which the matcher does not read. *)
From Coq Require Import List NArith ZArith Bool Arith Lia Permutation.
From SK Require Import lib.LGraph lib.C01_GraphLemmas model.C01_Model model.C02_Model model.C09_Model
  proof.C01_Proof proof.C09_Lists proof.C09_Valid proof.C09_Canon.
Import ListNotations.

Lemma assoc_perm {V} (l l' : list (N * V)) k : NoDup (map fst l) -> Permutation l l' -> assoc k l = assoc k l'.
Proof.
  intros Hnd P. assert (Hnd' : NoDup (map fst l')) by (eapply Permutation_NoDup; [apply Permutation_map; exact P|exact Hnd]).
  apply option_ext. intros v. split; intros E; apply assoc_in in E; apply assoc_nodup_in; auto.
  - eapply Permutation_in; eauto.
  - eapply Permutation_in; [apply Permutation_sym; exact P|exact E].
Qed.

Lemma node_ids_set_amap (g : mgraph) : node_ids (set_amap g) = node_ids g.
Proof. unfold node_ids, set_amap. simpl. rewrite map_map. reflexivity. Qed.
Lemma wf_set_amap (g : mgraph) : wf g -> wf (set_amap g).
Proof. intros (A & B & C). split; [|split]; [rewrite node_ids_set_amap; exact A| |exact C]. intros a b x I. rewrite node_ids_set_amap. apply (B a b x I). Qed.
Lemma side_tuple_set_amap (g : mgraph) n : side_tuple (set_amap g) n = side_tuple g n.
Proof.
  unfold side_tuple, label, set_amap. simpl.
  rewrite (assoc_map_val (fun k (a : gnode) => GN (g_el a) (g_arom a) (g_hc a) (g_ch a) (g_nb a) (Z.of_N k)) n (gnodes g)).
  destruct (assoc n (gnodes g)); reflexivity.
Qed.
Lemma adj_set_amap (g : mgraph) u v : adj (set_amap g) u v = adj g u v.
Proof. reflexivity. Qed.

Section Rel.
Variable f : N -> N.
Hypothesis Hinj : forall a b, f a = f b -> a = b.
Variables G Gc : mgraph.
Hypothesis WG : wf G.
Hypothesis RG : relabelled_by f G Gc.

Lemma rel_node_ids n : In n (node_ids Gc) <-> In n (map f (node_ids G)).
Proof.
  destruct RG as (RP & _). rewrite <- (node_ids_relabel f G). unfold node_ids. split; intros I.
  - eapply Permutation_in; [apply Permutation_map; exact RP|exact I].
  - eapply Permutation_in; [apply Permutation_map; apply Permutation_sym; exact RP|exact I].
Qed.
Lemma rel_wf : wf Gc.
Proof.
  destruct RG as (RP & RE). destruct (wf_relabel Hinj WG) as (A & B & C). split; [|split].
  - eapply Permutation_NoDup; [apply Permutation_map; apply Permutation_sym; exact RP|exact A].
  - intros a b x I. rewrite RE in I. destruct (B a b x I) as (I1 & I2 & Hne). split; [|split; [|exact Hne]].
    + apply rel_node_ids. rewrite <- node_ids_relabel. exact I1.
    + apply rel_node_ids. rewrite <- node_ids_relabel. exact I2.
  - rewrite RE. exact C.
Qed.
Lemma rel_label n : label Gc (f n) = label G n.
Proof.
  destruct RG as (RP & _). unfold label. rewrite (assoc_perm (gnodes Gc) (gnodes (relabel f G))); auto.
  - apply (label_relabel Hinj).
  - destruct rel_wf as (A & _). exact A.
Qed.
Lemma rel_adj u v : adj Gc (f u) (f v) = adj G u v.
Proof. destruct RG as (_ & RE). unfold adj. rewrite RE. apply (adj_relabel Hinj). Qed.
End Rel.

Lemma relabelled_exact f G : relabelled_by f G (relabel f G).
Proof. split; [apply Permutation_refl|reflexivity]. Qed.

(** forget the atom_map of an ITS node *)
Definition er (a : inode) : inode := IN (i_el a) (i_ch a) 0 (i_extra a) (i_G a) (i_H a).
Definition ern (ns : list (N * inode)) : list (N * inode) := map (fun p => (fst p, er (snd p))) ns.
(** same bonds, same atoms up to atom_map *)
Definition amap_eq (g g' : its) : Prop :=
  gedges g = gedges g' /\ forall n, option_map er (label g n) = option_map er (label g' n).

Lemma assoc_ern n ns : assoc n (ern ns) = option_map er (assoc n ns).
Proof. unfold ern. apply (assoc_map_val (fun _ a => er a)). Qed.

Lemma side_tuple_of_label (X X' : mgraph) n :
  option_map tuple_of (label X n) = option_map tuple_of (label X' n) -> side_tuple X n = side_tuple X' n.
Proof. unfold side_tuple. destruct (label X n), (label X' n); simpl; intros E; try discriminate; [inversion E; congruence|reflexivity]. Qed.

Lemma its_label_er (X Y X' Y' : mgraph) n :
  base_is_G X Y = base_is_G X' Y' ->
  option_map tuple_of (label X n) = option_map tuple_of (label X' n) ->
  option_map tuple_of (label Y n) = option_map tuple_of (label Y' n) ->
  option_map er (label (its_construct X Y) n) = option_map er (label (its_construct X' Y') n).
Proof.
  intros Eb Ex Ey. pose proof (side_tuple_of_label X X' n Ex) as Sx. pose proof (side_tuple_of_label Y Y' n Ey) as Sy.
  assert (En : forall m m', er (its_node X Y n m) = er (its_node X' Y' n m')).
  { intros m m'. unfold its_node, er. simpl. rewrite Sx, Sy. reflexivity. }
  rewrite !its_label. unfold its_base, its_other. rewrite Eb.
  destruct (base_is_G X' Y');
    destruct (label X n), (label X' n); simpl in Ex; try discriminate;
    destruct (label Y n), (label Y' n); simpl in Ey; try discriminate; simpl; try reflexivity; f_equal; apply En.
Qed.

Lemma label_tuple_rel (f : N -> N) (Hinj : forall a b, f a = f b -> a = b) (G G' : mgraph) n : wf G -> relabelled_by f G G' ->
  option_map tuple_of (label (set_amap G') n) = option_map tuple_of (label (relabel f G) n).
Proof.
  intros WG RG. pose proof (rel_wf f Hinj G G' WG RG) as (Hnd & _). destruct RG as (RP & _).
  unfold label at 1, set_amap. simpl.
  rewrite (assoc_map_val (fun k (a : gnode) => GN (g_el a) (g_arom a) (g_hc a) (g_ch a) (g_nb a) (Z.of_N k)) n (gnodes G')).
  rewrite (assoc_perm (gnodes G') (gnodes (relabel f G)) n Hnd RP). fold (label (relabel f G) n).
  destruct (label (relabel f G) n); reflexivity.
Qed.

Lemma its_amap_eq (f : N -> N) (G H G' H' : mgraph) : (forall a b, f a = f b -> a = b) -> wf G -> wf H ->
  relabelled_by f G G' -> relabelled_by f H H' ->
  amap_eq (its_construct (set_amap G') (set_amap H')) (its_construct (relabel f G) (relabel f H)).
Proof.
  intros Hinj WG WH RG RH. split.
  - rewrite !gedges_its. unfold its_edges, order_in, absent_in, adj. destruct RG as (_ & REG). destruct RH as (_ & REH).
    change (gedges (set_amap G')) with (gedges G'). change (gedges (set_amap H')) with (gedges H'). rewrite REG, REH. reflexivity.
  - intros n. apply its_label_er.
    + unfold base_is_G. destruct RG as (RPG & _). destruct RH as (RPH & _).
      assert (L1 : length (gnodes (set_amap G')) = length (gnodes (relabel f G))) by (unfold set_amap; simpl; rewrite map_length; apply Permutation_length; exact RPG).
      assert (L2 : length (gnodes (set_amap H')) = length (gnodes (relabel f H))) by (unfold set_amap; simpl; rewrite map_length; apply Permutation_length; exact RPH).
      rewrite L1, L2. reflexivity.
    + apply label_tuple_rel; auto.
    + apply label_tuple_rel; auto.
Qed.

Lemma amap_eq_same (g g' : its) : NoDup (node_ids g) -> NoDup (node_ids g') -> amap_eq g g' -> its_same g g'.
Proof.
  intros N1 N2 (Ee & El).
  assert (Hin : forall h h' : its, (forall n, option_map er (label h n) = option_map er (label h' n)) ->
                  forall n, In n (node_ids h) -> In n (node_ids h')).
  { intros h h' L n I. destruct (node_label_some I) as (a & La). specialize (L n). rewrite La in L.
    destruct (label h' n) as [a'|] eqn:La'; [|discriminate]. apply assoc_in in La'. apply (in_map fst) in La'. exact La'. }
  split; [apply NoDup_Permutation; auto; intros n; split; apply Hin; auto|].
  split; [rewrite Ee; reflexivity|]. split; [|intros u v; unfold adj; rewrite Ee; reflexivity].
  intros n x. assert (E : er (lbl g n) = er (lbl g' n)).
  { unfold lbl. specialize (El n). destruct (label g n), (label g' n); cbn [option_map] in El; try discriminate; [congruence|reflexivity]. }
  (* node_match does not read atom_map *)
  change (node_match (er (lbl g n)) x = node_match (er (lbl g' n)) x /\ node_match x (er (lbl g n)) = node_match x (er (lbl g' n))).
  rewrite E. auto.
Qed.

(** the ITS of two graphs relabelled by the same injective map (node lists possibly permuted, atom_map attributes
    rewritten) is isomorphic to the ITS of the originals *)
Theorem its_relabelled_isomorphic (f : N -> N) (G H Gc Hc : mgraph) :
  (forall a b, f a = f b -> a = b) -> wf G -> wf H -> relabelled_by f G Gc -> relabelled_by f H Hc ->
  its_isomorphic (its_construct (set_amap Gc) (set_amap Hc)) (its_construct G H).
Proof.
  intros Hinj WG WH RG RH.
  assert (S : its_same (its_construct (relabel f G) (relabel f H)) (its_construct (set_amap Gc) (set_amap Hc))).
  { apply amap_eq_same.
    - apply its_nodup; apply (wf_relabel Hinj); assumption.
    - apply its_nodup; apply wf_set_amap; [apply (rel_wf f Hinj G Gc WG RG)|apply (rel_wf f Hinj H Hc WH RH)].
    - destruct (its_amap_eq f G H Gc Hc Hinj WG WH RG RH) as (A & B). split; [symmetry; exact A|intros n; symmetry; apply B]. }
  apply (its_isomorphic_same _ _ _ _ S (its_same_refl _)).
  rewrite (construct_equivariant f Hinj). apply relabel_isomorphic. exact Hinj.
Qed.
