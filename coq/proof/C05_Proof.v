(** C05 — lemmas about the composed pipeline (model/C05_Model.v):
    the model's enumerator [extend'] (label test before the edge test, because vm_compute is call-by-value) is
    lib/Mono's [extend]; relabelling lemmas for list graphs; the verified
    enumerator commutes with relabelling of pattern and host (literal, list level). Stdlib lists. *)
From Coq Require Import List ZArith Bool.
From SK Require Import lib.LGraph lib.Mono.
From SK Require Import model.C03_Model model.C05_Model.
Import ListNotations.



Lemma pipeline_repeat {TH : Thr} inv imp ex s (h h' : hostg) (t t' : its) :
  h = h' -> t = t' -> pipeline inv imp ex s h t = pipeline inv imp ex s h' t'.
Proof. intros -> ->. reflexivity. Qed.

(** ** [extend'] = [Mono.extend] *)
Section FastEq.
  Variables A B : Type.
  Variable hn : list N.
  Variable pl hl : N -> A.
  Variable pe he : N -> N -> option B.
  Variable nm : A -> A -> bool.
  Variable em : B -> B -> bool.
  Variable induced : bool.

  Lemma ok'_eq p h acc : ok' A B pl hl pe he nm em induced p h acc = ok pl hl pe he nm em induced p h acc.
  Proof. unfold ok', ok. destruct (nm (hl h) (pl p)); simpl; [|reflexivity]. destruct (fresh h acc); reflexivity. Qed.

  Lemma extend'_eq ps : forall acc,
    extend' A B hn pl hl pe he nm em induced ps acc = extend hn pl hl pe he nm em induced ps acc.
  Proof.
    induction ps as [|p ps IH]; intros acc; simpl; [reflexivity|].
    apply flat_map_ext. intros h. rewrite ok'_eq. destruct (ok _ _ _ _ _ _ _ _ _ _); [apply IH | reflexivity].
  Qed.
End FastEq.

Lemma monos'_eq A B pn hn (pl hl : N -> A) (pe he : N -> N -> option B) nm em induced :
  monos' pn hn pl hl pe he nm em induced = monos pn hn pl hl pe he nm em induced.
Proof. unfold monos', monos. apply extend'_eq. Qed.

Lemma monos_on'_eq H P hn pn : monos_on' H P hn pn = C06_Model.monos_on H P hn pn.
Proof. unfold monos_on', C06_Model.monos_on. apply monos'_eq. Qed.

(** ** relabelling of list graphs by an injective function *)
Definition inj (f : N -> N) : Prop := forall a b, f a = f b -> a = b.

Lemma inj_eqb f a b : inj f -> N.eqb (f a) (f b) = N.eqb a b.
Proof.
  intros Hf. destruct (N.eqb_spec a b) as [->|Hne]; [apply N.eqb_refl|].
  apply N.eqb_neq. intros E. apply Hne, Hf, E.
Qed.

Section Relabel.
  Variables A B : Type.
  Variable f : N -> N.
  Hypothesis Hf : inj f.

  Lemma assoc_relabel {V} (l : list (N * V)) u : assoc (f u) (map (fun p => (f (fst p), snd p)) l) = assoc u l.
  Proof.
    induction l as [|[k v] r IH]; simpl; [reflexivity|].
    rewrite (inj_eqb f u k Hf). destruct (N.eqb u k); [reflexivity | apply IH].
  Qed.

  Lemma label_relabel (g : lgraph A B) u : label (relabel f g) (f u) = label g u.
  Proof. unfold label, relabel; simpl. apply assoc_relabel. Qed.

  Lemma has_node_relabel (g : lgraph A B) u : has_node (relabel f g) (f u) = has_node g u.
  Proof. unfold has_node. rewrite label_relabel. reflexivity. Qed.

  Lemma find_edge_relabel (es : list (N * N * B)) u v :
    find_edge (f u) (f v) (map (fun e => let '(a, b, x) := e in (f a, f b, x)) es) = find_edge u v es.
  Proof.
    induction es as [|[[a b] x] r IH]; simpl; [reflexivity|].
    rewrite !(inj_eqb f _ _ Hf). destruct ((N.eqb a u && N.eqb b v) || (N.eqb a v && N.eqb b u)); [reflexivity | apply IH].
  Qed.

  Lemma adj_relabel (g : lgraph A B) u v : LGraph.adj (relabel f g) (f u) (f v) = LGraph.adj g u v.
  Proof. unfold LGraph.adj, relabel; simpl. apply find_edge_relabel. Qed.

  Lemma node_ids_relabel (g : lgraph A B) : node_ids (relabel f g) = map f (node_ids g).
  Proof. unfold node_ids, relabel; simpl. rewrite !map_map. reflexivity. Qed.
End Relabel.

(** a conversion that maps node labels by [FN] and edge labels by [FE] (to the matcher's graphs, to an ITS graph) commutes
    with relabelling *)
Lemma relabel_map_labels {A B A' B'} (f : N -> N) (FN : A -> A') (FE : B -> B') (g : lgraph A B) :
  LG (map (fun p => (fst p, FN (snd p))) (gnodes (relabel f g)))
     (map (fun e : N * N * B => let '(u, v, o) := e in (u, v, FE o)) (gedges (relabel f g)))
  = relabel f (LG (map (fun p => (fst p, FN (snd p))) (gnodes g))
                  (map (fun e : N * N * B => let '(u, v, o) := e in (u, v, FE o)) (gedges g))).
Proof.
  unfold relabel; simpl. rewrite !map_map. f_equal. apply map_ext. intros [[u v] o]. reflexivity.
Qed.

Lemma flat_map_map' {X Y Z} (f : Y -> list Z) (g : X -> Y) l : flat_map f (map g l) = flat_map (fun x => f (g x)) l.
Proof. induction l as [|x r IH]; simpl; [reflexivity | rewrite IH; reflexivity]. Qed.
Lemma map_flat_map' {X Y Z} (h : Y -> Z) (f : X -> list Y) l : map h (flat_map f l) = flat_map (fun x => map h (f x)) l.
Proof. induction l as [|x r IH]; simpl; [reflexivity | rewrite map_app, IH; reflexivity]. Qed.
Lemma filter_map_comm {X Y} (f : X -> Y) (p : Y -> bool) (q : X -> bool) (l : list X) :
  (forall x, p (f x) = q x) -> filter p (map f l) = map f (filter q l).
Proof.
  intros E. induction l as [|x r IH]; simpl; [reflexivity|]. rewrite E. destruct (q x); simpl; rewrite IH; reflexivity.
Qed.

(** ** the enumerator commutes with relabelling *)
Definition mv (sg pi : N -> N) (m : list (N * N)) : list (N * N) := map (fun ph => (sg (fst ph), pi (snd ph))) m.

Section MonoEquiv.
  Variables A B : Type.
  Variables sg pi : N -> N.
  Hypothesis pi_inj : inj pi.
  Variable hn : list N.
  Variables pl hl pl' hl' : N -> A.
  Variables pe he pe' he' : N -> N -> option B.
  Variable nm : A -> A -> bool.
  Variable em : B -> B -> bool.
  Variable induced : bool.
  Hypothesis Hpl : forall p, pl' (sg p) = pl p.
  Hypothesis Hhl : forall h, hl' (pi h) = hl h.
  Hypothesis Hpe : forall p q, pe' (sg p) (sg q) = pe p q.
  Hypothesis Hhe : forall h k, he' (pi h) (pi k) = he h k.

  Lemma fresh_equiv h acc : fresh (pi h) (mv sg pi acc) = fresh h acc.
  Proof.
    unfold fresh, mv. f_equal. induction acc as [|[p' h'] r IH]; simpl; [reflexivity|].
    rewrite (inj_eqb pi h' h pi_inj), IH. reflexivity.
  Qed.

  Lemma edge_ok_equiv p h ph :
    edge_ok pe' he' em induced (sg p) (pi h) (sg (fst ph), pi (snd ph)) = edge_ok pe he em induced p h ph.
  Proof. unfold edge_ok; simpl. rewrite Hpe, Hhe. reflexivity. Qed.

  Lemma ok_equiv p h acc :
    ok pl' hl' pe' he' nm em induced (sg p) (pi h) (mv sg pi acc) = ok pl hl pe he nm em induced p h acc.
  Proof.
    unfold ok. rewrite Hpl, Hhl, fresh_equiv. f_equal.
    unfold mv. induction acc as [|ph r IH]; simpl; [reflexivity|]. rewrite edge_ok_equiv, IH. reflexivity.
  Qed.

  Lemma extend_equiv ps : forall acc,
    extend (map pi hn) pl' hl' pe' he' nm em induced (map sg ps) (mv sg pi acc)
    = map (mv sg pi) (extend hn pl hl pe he nm em induced ps acc).
  Proof.
    induction ps as [|p ps IH]; intros acc; simpl; [reflexivity|].
    rewrite flat_map_map', map_flat_map'.
    apply flat_map_ext. intros h. rewrite ok_equiv.
    destruct (ok pl hl pe he nm em induced p h acc); [|reflexivity].
    apply (IH ((p, h) :: acc)).
  Qed.

  Lemma monos_equiv pn :
    monos (map sg pn) (map pi hn) pl' hl' pe' he' nm em induced = map (mv sg pi) (monos pn hn pl hl pe he nm em induced).
  Proof. unfold monos. apply (extend_equiv pn []). Qed.
End MonoEquiv.

