(** C18 — integer_ids (model/C18_IntIdsModel.v): on a network without a view-id collision the numbering is an injective renaming
    of all node names, so the canonical graph is the same with and without the option. *)
From Coq Require Import List NArith ZArith Bool Arith Lia Permutation.
From SK Require Import lib.IRSortKeys lib.IRCore lib.IRSearch lib.C18_IRValid model.C18_Model model.C18_IntIdsModel
  proof.C18_Spec proof.C18_Graph proof.C18_Canon proof.C18_View proof.C18_NetBip proof.C18_Net.
Import ListNotations.

Lemma index_of_range x l : forall i, In x l -> (i <= index_of x l i < i + N.of_nat (length l))%N.
Proof.
  induction l as [|y l IH]; intros i Hx; [contradiction|]. cbn [index_of length].
  destruct (N.eqb_spec y x) as [->|Hne]; [lia|]. destruct Hx as [E|Hx]; [congruence|]. specialize (IH (i + 1)%N Hx). lia.
Qed.
Lemma index_of_inj l : forall i x y, In x l -> In y l -> index_of x l i = index_of y l i -> x = y.
Proof.
  induction l as [|z l IH]; intros i x y Hx Hy; [contradiction|]. cbn [index_of].
  destruct (N.eqb_spec z x) as [Ex|Nx], (N.eqb_spec z y) as [Ey|Ny]; try congruence.
  - destruct Hy as [E|Hy]; [congruence|]. pose proof (index_of_range y l (i + 1)%N Hy). lia.
  - destruct Hx as [E|Hx]; [congruence|]. pose proof (index_of_range x l (i + 1)%N Hx). lia.
  - destruct Hx as [E|Hx]; [congruence|]. destruct Hy as [E|Hy]; [congruence|]. apply IH; auto.
Qed.

(** species get the numbers 1 .. number of species, reactions larger ones, each injectively *)
Lemma int_sp_range n s : In s (nspecies n) -> (1 <= int_sp n s <= N.of_nat (length (sortN (nspecies n))))%N.
Proof. intros H. unfold int_sp. pose proof (index_of_range s (sortN (nspecies n)) 0%N (proj2 (sortN_in _ _) H)). lia. Qed.
Lemma int_rx_range n e : (N.of_nat (length (sortN (nspecies n))) < int_rx n e)%N.
Proof. unfold int_rx. lia. Qed.
Lemma int_sp_inj n s s' : In s (nspecies n) -> In s' (nspecies n) -> int_sp n s = int_sp n s' -> s = s'.
Proof.
  intros H H' E. unfold int_sp in E. apply (index_of_inj (sortN (nspecies n)) 0%N); try (apply sortN_in; auto). lia.
Qed.
Lemma int_rx_inj n e e' : In e (map rid (nrxns n)) -> In e' (map rid (nrxns n)) -> int_rx n e = int_rx n e' -> e = e'.
Proof.
  intros H H' E. unfold int_rx in E. apply (index_of_inj (sortN (map rid (nrxns n))) 0%N); try (apply sortN_in; auto). lia.
Qed.

(** the numbering as ONE map on the shared namespace (possible exactly because species labels and reaction ids are disjoint) *)
Definition int_f (n : net) (x : N) : N := if memN x (nspecies n) then int_sp n x else int_rx n x.

Lemma sortN_length l : NoDup l -> length (sortN l) = length l.
Proof. intros H. apply Permutation_length. apply sortN_perm. exact H. Qed.

Lemma int_f_inj n : NoDup (nspecies n ++ map rid (nrxns n)) -> inj_on (int_f n) (nspecies n ++ map rid (nrxns n)).
Proof.
  intros Hnd x y Hx Hy. unfold int_f.
  assert (Hcase : forall z, In z (nspecies n ++ map rid (nrxns n)) -> memN z (nspecies n) = false -> In z (map rid (nrxns n))).
  { intros z Hz Hm. apply in_app_or in Hz. destruct Hz as [Hz|Hz]; auto. apply memN_spec in Hz. congruence. }
  destruct (memN x (nspecies n)) eqn:Mx, (memN y (nspecies n)) eqn:My.
  - apply memN_spec in Mx, My. apply int_sp_inj; assumption.
  - apply memN_spec in Mx. intros E. pose proof (int_sp_range n x Mx). pose proof (int_rx_range n y). lia.
  - apply memN_spec in My. intros E. pose proof (int_sp_range n y My). pose proof (int_rx_range n x). lia.
  - apply int_rx_inj; auto.
Qed.

Lemma intids_is_rename n : NoDup (nspecies n ++ map rid (nrxns n)) -> net_closed n -> intids_net n = rename_net (int_f n) n.
Proof.
  intros Hnd Hcl. unfold intids_net, rename_net. f_equal.
  - apply map_ext_in. intros s Hs. unfold int_f. apply memN_spec in Hs. rewrite Hs. reflexivity.
  - apply map_ext_in. intros r Hr. unfold rename_rxn. f_equal.
    + unfold int_f. destruct (memN (rid r) (nspecies n)) eqn:M; auto. apply memN_spec in M. exfalso.
      apply (NoDup_app_disj _ _ (rid r) Hnd M). apply in_map. exact Hr.
    + unfold int_side, rename_side. apply map_ext_in. intros sc Hsc. unfold int_f.
      assert (Hin : In (fst sc) (nspecies n)) by (apply (Hcl r Hr); apply in_or_app; auto).
      apply memN_spec in Hin. rewrite Hin. reflexivity.
    + unfold int_side, rename_side. apply map_ext_in. intros sc Hsc. unfold int_f.
      assert (Hin : In (fst sc) (nspecies n)) by (apply (Hcl r Hr); apply in_or_app; auto).
      apply memN_spec in Hin. rewrite Hin. reflexivity.
Qed.

(** an injective renaming of all names keeps a network inside the domain of the network theorems *)
Lemma arcs_of_rename st f n : arcs_of st (rename_net f n) = map (relab f) (arcs_of st n).
Proof.
  unfold arcs_of, rename_net. simpl. induction (nrxns n) as [|r l IH]; [reflexivity|]. simpl. rewrite map_app, IH. f_equal.
  unfold arcs_of_rxn, rename_rxn, rename_side, relab. simpl. rewrite !map_app, !map_map. reflexivity.
Qed.
Lemma net_ok_rename st f n : net_ok st n -> inj_on f (nspecies n ++ map rid (nrxns n)) -> net_ok st (rename_net f n).
Proof.
  intros (Hnd & Hcl & Ha) Hf. split; [|split].
  - unfold rename_net. simpl. rewrite map_map. change (map (fun x => rid (rename_rxn f x)) (nrxns n)) with (map (fun x => f (rid x)) (nrxns n)).
    rewrite <- (map_map rid f), <- map_app. apply NoDup_map_inj_on; auto.
  - intros r' Hr' sc' Hsc'. unfold rename_net in *. simpl in *. apply in_map_iff in Hr'. destruct Hr' as (r & <- & Hr).
    unfold rename_rxn, rename_side in Hsc'. simpl in Hsc'. rewrite <- map_app in Hsc'. apply in_map_iff in Hsc'.
    destruct Hsc' as (sc & <- & Hsc). simpl. apply in_map. apply (Hcl r Hr sc Hsc).
  - rewrite arcs_of_rename, map_map.
    assert (Hends : forall e, In e (arcs_of st n) -> In (asrc e) (nspecies n ++ map rid (nrxns n)) /\ In (adst e) (nspecies n ++ map rid (nrxns n))).
    { intros e He. unfold arcs_of in He. apply in_flat_map in He. destruct He as (r & Hr & He). unfold arcs_of_rxn in He.
      apply in_app_or in He. destruct He as [He|He]; apply in_map_iff in He; destruct He as (sc & <- & Hsc); unfold asrc, adst; simpl; split;
        apply in_or_app; try (right; apply in_map; exact Hr); left; apply (Hcl r Hr); apply in_or_app; auto. }
    change (fun x => akey (relab f x)) with (fun x : arc => (f (fst (akey x)), f (snd (akey x)))).
    rewrite <- (map_map akey (fun k => (f (fst k), f (snd k)))). apply NoDup_map_inj_on; [|exact Ha].
    intros k k' Hk Hk' E. apply in_map_iff in Hk, Hk'. destruct Hk as (e & <- & He), Hk' as (e' & <- & He').
    destruct (Hends e He) as [A1 A2]. destruct (Hends e' He') as [B1 B2]. inversion E as [[E1 E2]].
    unfold akey in *. cbn [fst snd] in *. f_equal; apply Hf; assumption.
Qed.

(** integer_ids=True gives the identical canonical graph (bipartite view) *)
Theorem net_intids_canon st n lab p lab' p' :
  net_ok st n -> coeffs_ok n ->
  fst (canon_search (view true st n)) = Some (lab, p) ->
  fst (canon_search (view true st (intids_net n))) = Some (lab', p') ->
  lab' = lab /\ geq (canon_graph (view true st (intids_net n)) p') (canon_graph (view true st n) p).
Proof.
  intros Hn Hc Hb Hb'. pose proof Hn as (Hnd & Hcl & _).
  pose proof (int_f_inj n Hnd) as Hf. rewrite (intids_is_rename n Hnd Hcl) in *.
  apply (net_renamed_ids_bip st (int_f n) n lab p lab' p'); auto. apply net_ok_rename; auto.
Qed.
