(** C04 — the templates of a reaction describe it: full ITS, reaction centre (when it carries every change),
    and their inversions. *)
From Coq Require Import List NArith ZArith Bool Lia.
From SK Require Import lib.LGraph model.C03_Model model.C04_Model proof.C03_Proof proof.C03_Glue proof.C03_Backward proof.C04_Glue.
Import ListNotations.
Local Open Scope Z_scope.

(** * simple edge lists: from the proposition back to the boolean, sub-lists, concatenation *)
Lemma simple_b_of_P {B} (es : list (N * N * B)) : simpleP (pairs es) -> simple_edgesb es = true.
Proof.
  induction es as [|[[a b] x] r IH]; simpl; [reflexivity|]. intros (Hne & Hr & Hs).
  apply andb_true_intro; split; [apply andb_true_intro; split|auto].
  - apply negb_true_iff. apply N.eqb_neq. exact Hne.
  - apply negb_true_iff. destruct (existsb _ r) eqn:E; [|reflexivity]. exfalso.
    apply existsb_exists in E. destruct E as ([[u v] y] & I & Hp).
    rewrite (Hr u v) in Hp; [discriminate|]. unfold pairs. change (u, v) with (fst (u, v, y)). apply in_map. exact I.
Qed.
Lemma simpleP_filter {B} (f : N * N * B -> bool) (es : list (N * N * B)) : simpleP (pairs es) -> simpleP (pairs (filter f es)).
Proof.
  induction es as [|[[a b] x] r IH]; simpl; [auto|]. intros (Hne & Hr & Hs).
  destruct (f (a, b, x)); simpl; [|auto]. split; [exact Hne|]. split; [|auto].
  intros u v I. apply Hr. unfold pairs in *. apply in_map_iff in I. destruct I as (e & E & I).
  apply filter_In in I. destruct I as [I _]. rewrite <- E. apply in_map. exact I.
Qed.
Lemma simpleP_app2 (p1 p2 : list (N * N)) : simpleP p1 -> simpleP p2 ->
  (forall a b u v, In (a, b) p1 -> In (u, v) p2 -> peq u v a b = false) -> simpleP (p1 ++ p2).
Proof.
  induction p1 as [|[a b] r IH]; simpl; [auto|]. intros (Hne & Hr & Hs) H2 Hx.
  split; [exact Hne|]. split.
  - intros u v I. apply in_app_or in I. destruct I as [I|I]; [auto|]. apply (Hx a b u v); auto.
  - apply IH; auto; intros; eapply Hx; eauto.
Qed.
Lemma wf_rcb_filter (t t' : its) (c : N * N * iedge -> bool) :
  wf_rcb t = true -> NoDup (node_ids t') -> gedges t' = filter c (gedges t) -> wf_rcb t' = true.
Proof.
  intros Hw Hn E. unfold wf_rcb. apply andb_true_intro; split; [apply andb_true_intro; split|].
  - apply NoDup_nodupb. exact Hn.
  - apply simple_b_of_P. rewrite E. apply simpleP_filter, simpleP_of_b. exact (wf_rc_simple t Hw).
  - apply forallb_forall. intros [[u v] x] I. rewrite E in I. apply filter_In in I.
    destruct (wf_rc_nonneg t u v x Hw (proj1 I)). simpl. apply andb_true_intro; split; apply Z.leb_le; assumption.
Qed.

Lemma pairs_map {B C} (f : N * N * B -> N * N * C) (es : list (N * N * B)) :
  (forall e, fst (f e) = fst e) -> pairs (map f es) = pairs es.
Proof. intros H. unfold pairs. rewrite map_map. apply map_ext. exact H. Qed.
Lemma pairs_app {B} (l1 l2 : list (N * N * B)) : pairs (l1 ++ l2) = pairs l1 ++ pairs l2.
Proof. unfold pairs. apply map_app. Qed.

Lemma filter_nil {X} (f : X -> bool) (l : list X) : (forall x, In x l -> f x = false) -> filter f l = [].
Proof. induction l as [|y r IH]; simpl; [reflexivity|]. intros H. rewrite (H y) by auto. apply IH. auto. Qed.

(** * soundness of the boolean well-formedness of a pair *)
Definition closed (A : hostg) : Prop := forall u v o, In (u, v, o) (gedges A) -> In u (node_ids A) /\ In v (node_ids A).
Lemma closed_sound A : edges_closed_h A = true -> closed A.
Proof.
  unfold edges_closed_h. intros H u v o I. eapply forallb_elim in H; [|exact I]. simpl in H.
  apply andb_prop in H. destruct H as [H1 H2]. split; apply mem_spec; assumption.
Qed.
Lemma pair_wfb_sound G H : pair_wfb G H = true -> pair_wf G H /\ closed G /\ closed H.
Proof.
  unfold pair_wfb. intros W.
  apply andb_prop in W. destruct W as [W W7]. apply andb_prop in W. destruct W as [W W6]. apply andb_prop in W. destruct W as [W W5].
  apply andb_prop in W. destruct W as [W W4]. apply andb_prop in W. destruct W as [W W3]. apply andb_prop in W. destruct W as [W1 W2].
  split; [|split; apply closed_sound; assumption]. constructor; auto.
  - intros n. split; intros I; apply mem_spec; [exact (forallb_elim _ _ _ W5 I)|exact (forallb_elim _ _ _ W6 I)].
  - intros n x y Ex Ey. eapply forallb_elim in W7; [|exact (assoc_in n (gnodes G) Ex)]. simpl in W7. rewrite Ey in W7. apply N.eqb_eq. exact W7.
Qed.
Lemma pair_wf_sym A B : pair_wf A B -> pair_wf B A.
Proof.
  intros [a b c d]. constructor; auto.
  - intros n. symmetry. apply c.
  - intros n x y Ex Ey. symmetry. eapply d; eauto.
Qed.
Lemma wf_host_orders A u v o : wf_hostb A = true -> In (u, v, o) (gedges A) -> 0 < o.
Proof.
  unfold wf_hostb. intros H I. apply andb_prop in H. destruct H as [_ H]. eapply forallb_elim in H; [|exact I]. simpl in H. apply Z.ltb_lt. exact H.
Qed.
Lemma host_in_adj A u v o : wf_hostb A = true -> In (u, v, o) (gedges A) -> adj A u v = Some o.
Proof. intros H I. unfold adj. apply simple_in_find; [apply host_simple; exact H|exact I]. Qed.

(** * the full ITS *)
Section Construct.
  Variables G H : hostg.
  Hypothesis PW : pair_wf G H.
  Hypothesis CG : closed G.
  Hypothesis CH : closed H.
  Let HG := pw_A _ _ PW.
  Let HH := pw_B _ _ PW.
  Let T0 := its_construct G H.

  Lemma construct_ids_in n : In n (node_ids T0) <-> In n (node_ids G).
  Proof.
    unfold T0, its_construct, node_ids at 1. simpl. rewrite map_map. simpl. rewrite map_id.
    destruct (length (gnodes H) <=? length (gnodes G))%nat.
    - rewrite in_app_iff, filter_In. split; [|auto]. intros [I|[I _]]; [exact I|]. apply (pw_ids _ _ PW). exact I.
    - rewrite in_app_iff, filter_In. split.
      + intros [I|[I _]]; [apply (pw_ids _ _ PW); exact I|exact I].
      + intros I. left. apply (pw_ids _ _ PW). exact I.
  Qed.
  Lemma construct_ids : exists base, (base = G \/ base = H) /\ node_ids T0 = node_ids base /\
                                     gnodes T0 = map (fun n => (n, its_node G H n)) (node_ids base).
  Proof.
    (* whichever graph is the base, the other one has no further atom *)
    assert (K : forall X Y : hostg, (forall n, In n (node_ids Y) -> In n (node_ids X)) ->
              filter (fun n => negb (has_node X n)) (node_ids Y) = []).
    { intros X Y HXY. apply filter_nil. intros n I. destruct (in_ids_label X n (HXY n I)) as [a Ea]. unfold has_node. rewrite Ea. reflexivity. }
    unfold T0, its_construct. destruct (length (gnodes H) <=? length (gnodes G))%nat; [exists G|exists H]; (split; [auto|]);
      unfold node_ids at 1; simpl; rewrite K by (intros n; apply (pw_ids _ _ PW)); rewrite app_nil_r, map_map; simpl; rewrite map_id; auto.
  Qed.

  Lemma construct_node n a : In (n, a) (gnodes T0) -> a = its_node G H n /\ In n (node_ids G).
  Proof.
    intros I. destruct construct_ids as (base & Hb & _ & E). rewrite E in I. apply in_map_iff in I.
    destruct I as (k & Ek & Ik). inversion Ek; subst. split; [reflexivity|].
    destruct Hb; subst; [exact Ik|apply (pw_ids _ _ PW); exact Ik].
  Qed.

  Lemma construct_edge u v x : In (u, v, x) (gedges T0) ->
    (exists o, In (u, v, o) (gedges G) /\ x = (o, order_in H u v, o - order_in H u v)) \/
    (exists o, In (u, v, o) (gedges H) /\ adj G u v = None /\ x = (0, o, - o)).
  Proof.
    unfold T0, its_construct; simpl. intros I. apply in_app_or in I. destruct I as [I|I]; apply in_map_iff in I.
    - destruct I as ([[p q] o] & E & I). inversion E; subst. left. eauto.
    - destruct I as ([[p q] o] & E & I). inversion E; subst. apply filter_In in I. destruct I as [I Ab].
      right. exists o. split; [exact I|]. split; [|reflexivity]. unfold absent_in in Ab. destruct (adj G u v); [discriminate|reflexivity].
  Qed.

  Lemma construct_simple : simpleP (pairs (gedges T0)).
  Proof.
    unfold T0, its_construct; simpl. rewrite pairs_app. apply simpleP_app2.
    - rewrite pairs_map; [apply host_simple; exact HG|]. intros [[u v] o]; reflexivity.
    - rewrite pairs_map; [apply simpleP_filter; apply host_simple; exact HH|]. intros [[u v] o]; reflexivity.
    - intros a b u v I1 I2.
      rewrite pairs_map in I1 by (intros [[? ?] ?]; reflexivity). rewrite pairs_map in I2 by (intros [[? ?] ?]; reflexivity).
      unfold pairs in I1, I2. apply in_map_iff in I1. destruct I1 as ([[a' b'] o1] & E1 & I1). simpl in E1; inversion E1; subst.
      apply in_map_iff in I2. destruct I2 as ([[u' v'] o2] & E2 & I2). simpl in E2; inversion E2; subst.
      apply filter_In in I2. destruct I2 as [_ Ab]. unfold absent_in in Ab. destruct (adj G u v) eqn:Ea; [discriminate|].
      rewrite peq_swap. exact (find_edge_none_in (gedges G) u v a b o1 Ea I1).
  Qed.

  Lemma construct_wf : wf_rcb T0 = true.
  Proof.
    unfold wf_rcb. apply andb_true_intro; split; [apply andb_true_intro; split|].
    - destruct construct_ids as (base & Hb & E & _). rewrite E.
      assert (Hw : wf_hostb base = true) by (destruct Hb; subst; assumption).
      apply NoDup_nodupb, wf_host_nodup. exact Hw.
    - apply simple_b_of_P. exact construct_simple.
    - apply forallb_forall. intros [[u v] x] I. simpl. destruct (construct_edge u v x I) as [(o & Io & ->)|(o & Io & _ & ->)].
      + unfold eG, eH; simpl. pose proof (wf_host_orders G u v o HG Io). pose proof (order_in_nonneg H u v HH).
        apply andb_true_intro; split; apply Z.leb_le; lia.
      + unfold eG, eH; simpl. pose proof (wf_host_orders H u v o HH Io). repeat (apply andb_true_intro; split); apply Z.leb_le; lia.
  Qed.

  Lemma construct_edge_orders u v x : In (u, v, x) (gedges T0) ->
    In u (node_ids G) /\ In v (node_ids G) /\ eG x = order_in G u v /\ eH x = order_in H u v /\ eS x = eG x - eH x.
  Proof.
    intros I. destruct (construct_edge u v x I) as [(o & Io & ->)|(o & Io & Ea & ->)]; unfold eG, eH, eS; simpl.
    - destruct (CG u v o Io). repeat split; auto. unfold order_in at 1. rewrite (host_in_adj G u v o HG Io). reflexivity.
    - destruct (CH u v o Io) as [Iu Iv]. apply (pw_ids _ _ PW) in Iu. apply (pw_ids _ _ PW) in Iv.
      repeat split; auto; unfold order_in; rewrite ?Ea, ?(host_in_adj H u v o HH Io); try reflexivity; lia.
  Qed.

  Lemma construct_cover u v : order_in G u v <> order_in H u v -> exists x, adj T0 u v = Some x.
  Proof.
    intros NE. unfold adj, T0, its_construct; simpl. rewrite find_edge_app.
    match goal with |- context [find_edge u v (map ?f (gedges G))] => set (l1 := map f (gedges G)) end.
    match goal with |- context [find_edge u v (map ?f (filter ?g (gedges H)))] => set (l2 := map f (filter g (gedges H))) end.
    destruct (adj G u v) as [o|] eqn:Ea.
    - unfold adj in Ea. apply find_edge_in in Ea. destruct Ea as (p & q & I & Hp).
      assert (E : exists y, find_edge u v l1 = Some y).
      { apply (in_find_some l1 u v p q (o, order_in H p q, o - order_in H p q)); [|exact Hp].
        apply in_map_iff. exists (p, q, o). auto. }
      destruct E as [y Ey]. unfold iedge in *. rewrite Ey. eauto.
    - destruct (adj H u v) as [o|] eqn:Eh.
      + unfold adj in Eh. apply find_edge_in in Eh. destruct Eh as (p & q & I & Hp).
        unfold iedge in *. destruct (find_edge u v l1); [eauto|].
        apply (in_find_some l2 u v p q (0, o, - o)); [|exact Hp].
        apply in_map_iff. exists (p, q, o). split; [reflexivity|]. apply filter_In. split; [exact I|].
        unfold absent_in. unfold adj in *. rewrite (find_edge_peq (gedges G) p q u v Hp), Ea. reflexivity.
      + exfalso. apply NE. unfold order_in. rewrite Ea, Eh. reflexivity.
  Qed.

  Theorem construct_fits : fits G H T0.
  Proof.
    constructor.
    - exact construct_wf.
    - intros n a I. destruct (construct_node n a I) as [-> In_]. destruct (in_ids_label G n In_) as [x Ex].
      destruct (in_ids_label H n (proj1 (pw_ids _ _ PW n) In_)) as [y Ey]. exists x, y.
      unfold its_node, side_tuple, node_fit; simpl. rewrite Ex, Ey. repeat split; auto; lia.
    - intros u v x I. destruct (construct_edge_orders u v x I) as (Iu & Iv & Eg & Eh & _).
      repeat split; auto; apply construct_ids_in; assumption.
  Qed.
  Theorem construct_describes : describes G H T0.
  Proof.
    constructor.
    - exact construct_fits.
    - exact construct_cover.
    - intros n x y Ex _ _. apply construct_ids_in. exact (label_some_in G n x Ex).
  Qed.
End Construct.

(** * the reaction centre of an ITS without hydrogen atoms *)
Lemma has_key_in n (ns : list (N * inode)) : has_key n ns = true <-> In n (map fst ns).
Proof.
  unfold has_key. destruct (assoc n ns) as [a|] eqn:E; split; intros H; try discriminate; auto.
  - apply assoc_in in E. change n with (fst (n, a)). apply in_map. exact E.
  - exfalso. exact (label_none (LG ns (@nil (N * N * iedge))) n E H).
Qed.
Lemma filter_nil_inv {X} (f : X -> bool) (l : list X) : filter f l = [] -> forall x, In x l -> f x = false.
Proof.
  induction l as [|y r IH]; simpl; [intros _ x []|]. destruct (f y) eqn:E; [discriminate|].
  intros H x [<-|I]; auto.
Qed.
Lemma find_edge_filter {B} (f : B -> bool) (es : list (N * N * B)) u v x :
  find_edge u v es = Some x -> f x = true -> find_edge u v (filter (fun e => f (snd e)) es) = Some x.
Proof.
  induction es as [|[[p q] y] r IH]; simpl; [discriminate|].
  destruct ((N.eqb p u && N.eqb q v) || (N.eqb p v && N.eqb q u)) eqn:E.
  - intros [= ->] Hf. rewrite Hf. simpl. rewrite E. reflexivity.
  - intros H Hf. destruct (f y); simpl; [rewrite E|]; auto.
Qed.

Lemma NoDup_app_one {X} (l : list X) x : NoDup l -> ~ In x l -> NoDup (l ++ [x]).
Proof.
  induction l as [|y r IH]; simpl; intros H N; [constructor; [intros []|constructor]|].
  inversion H; subst. constructor.
  - intros I. apply in_app_or in I. destruct I as [I|[I|[]]]; [contradiction|subst; apply N; auto].
  - apply IH; auto.
Qed.

Section RC.
  Variable g : its.
  (** no bond joins two hydrogen atoms (then _add_hh_bonds adds nothing) *)
  Hypothesis noHH : forall u v x, In (u, v, x) (gedges g) -> is_hh g u v = false.
  Hypothesis closedg : forall u v x, In (u, v, x) (gedges g) -> (exists a, label g u = Some a) /\ (exists b, label g v = Some b).

  Definition ninv (ns : list (N * inode)) : Prop :=
    NoDup (map fst ns) /\ forall n a, In (n, a) ns -> exists a', label g n = Some a' /\ a = rc_attr a'.

  Lemma ensure_ninv n ns : ninv ns -> ninv (ensure_node g n ns).
  Proof.
    intros [Hnd Hat]. unfold ensure_node. destruct (has_key n ns) eqn:Ek; [split; assumption|].
    destruct (label g n) as [a|] eqn:El; [|split; assumption]. split.
    - rewrite map_app. simpl. apply NoDup_app_one; [exact Hnd|]. intros I. apply has_key_in in I. congruence.
    - intros k b I. apply in_app_or in I. destruct I as [I|[I|[]]]; [auto|]. inversion I; subst. eauto.
  Qed.
  Lemma ensure_mono n ns k : In k (map fst ns) -> In k (map fst (ensure_node g n ns)).
  Proof.
    intros I. unfold ensure_node. destruct (has_key n ns); [exact I|]. destruct (label g n); [|exact I].
    rewrite map_app. apply in_or_app. auto.
  Qed.
  Lemma ensure_in n ns a : label g n = Some a -> In n (map fst (ensure_node g n ns)).
  Proof.
    intros El. unfold ensure_node. destruct (has_key n ns) eqn:Ek; [apply has_key_in; exact Ek|]. rewrite El.
    rewrite map_app. apply in_or_app. right. simpl. auto.
  Qed.

  Definition ends_in (st : rc_state) : Prop :=
    forall u v x, In (u, v, x) (snd st) -> In u (map fst (fst st)) /\ In v (map fst (fst st)).

  Lemma fold_changed es : forall st, ninv (fst st) -> ends_in st ->
    (forall u v x, In (u, v, x) es -> (exists a, label g u = Some a) /\ (exists b, label g v = Some b)) ->
    let st' := fold_left (step_changed g) es st in
    ninv (fst st') /\ ends_in st' /\ snd st' = snd st ++ filter (fun e => changed (snd e)) es.
  Proof.
    induction es as [|[[u v] x] r IH]; intros st Hn He Hc; cbn [fold_left].
    - simpl. rewrite app_nil_r. auto.
    - assert (Hc' : forall u0 v0 x0, In (u0, v0, x0) r -> (exists a, label g u0 = Some a) /\ (exists b, label g v0 = Some b))
        by (intros; eapply Hc; right; eauto).
      assert (Es : step_changed g st (u, v, x) =
                   if changed x then (ensure_node g v (ensure_node g u (fst st)), snd st ++ [(u, v, x)]) else st) by reflexivity.
      rewrite Es. cbn [filter snd]. destruct (changed x) eqn:Ec; [|apply IH; assumption].
      destruct (Hc u v x (or_introl eq_refl)) as [[a Ea] [b Eb]].
      set (st1 := (ensure_node g v (ensure_node g u (fst st)), snd st ++ [(u, v, x)])).
      assert (P1 : ninv (fst st1)) by (cbn [st1 fst]; apply ensure_ninv; apply ensure_ninv; exact Hn).
      assert (P2 : ends_in st1).
      { unfold ends_in, st1. cbn [fst snd]. intros p q y I. apply in_app_or in I. destruct I as [I|[I|[]]].
        - destruct (He p q y I). split; apply ensure_mono; apply ensure_mono; assumption.
        - inversion I; subst. split; [apply ensure_mono; eapply ensure_in; eauto|eapply ensure_in; eauto]. }
      destruct (IH st1 P1 P2 Hc') as (I1 & I2 & I3).
      split; [exact I1|]. split; [exact I2|]. rewrite I3. cbn [st1 snd]. rewrite <- app_assoc. reflexivity.
  Qed.

  Lemma fold_hh es st : (forall u v x, In (u, v, x) es -> is_hh g u v = false) -> fold_left (step_hh g) es st = st.
  Proof.
    revert st. induction es as [|[[u v] x] r IH]; intros st H; cbn [fold_left]; [reflexivity|].
    unfold step_hh at 2. rewrite (H u v x (or_introl eq_refl)). apply IH. intros; eapply H; right; eauto.
  Qed.

  Lemma get_rc_spec :
    NoDup (node_ids (get_rc g)) /\
    (forall n a, In (n, a) (gnodes (get_rc g)) -> exists a', label g n = Some a' /\ a = rc_attr a') /\
    gedges (get_rc g) = filter (fun e => changed (snd e)) (gedges g) /\
    (forall u v x, In (u, v, x) (gedges (get_rc g)) -> In u (node_ids (get_rc g)) /\ In v (node_ids (get_rc g))).
  Proof.
    unfold get_rc. rewrite (fold_hh _ _ noHH). unfold node_ids; simpl.
    assert (P1 : ninv (fst (@nil (N * inode), @nil (N * N * iedge)))) by (split; [constructor|intros n a []]).
    assert (P2 : ends_in (@nil (N * inode), @nil (N * N * iedge))) by (intros u v x []).
    destruct (fold_changed (gedges g) ([], []) P1 P2 closedg) as ((I1 & I1') & I2 & I3).
    simpl in I3. repeat split; auto; apply (I2 u v x); assumption.
  Qed.
End RC.

(** * the centre of the ITS of a pair written without hydrogen atoms *)
Definition edges_pos (t : its) : Prop := forall u v x, In (u, v, x) (gedges t) -> 0 < eG x \/ 0 < eH x.

Section Centre.
  Variables G H : hostg.
  Hypothesis PW : pair_wf G H.
  Hypothesis CG : closed G.
  Hypothesis CH : closed H.
  (** no bond of G or H joins two hydrogen atoms *)
  Hypothesis NHH : forall u v x, In (u, v, x) (gedges (its_construct G H)) -> is_hh (its_construct G H) u v = false.
  Let HG := pw_A _ _ PW.
  Let HH := pw_B _ _ PW.
  Let T0 := its_construct G H.
  Let rc := get_rc T0.

  Lemma T0_label n a : label T0 n = Some a -> a = its_node G H n /\ In n (node_ids G).
  Proof. intros E. apply (construct_node G H PW n a). apply assoc_in. exact E. Qed.
  Lemma T0_closed u v x : In (u, v, x) (gedges T0) -> (exists a, label T0 u = Some a) /\ (exists b, label T0 v = Some b).
  Proof.
    intros I. destruct (construct_edge_orders G H PW CG CH u v x I) as (Iu & Iv & _).
    split; apply in_ids_label; apply (construct_ids_in G H PW); assumption.
  Qed.
  Lemma T0_edges_pos : edges_pos T0.
  Proof.
    intros u v x I. destruct (construct_edge G H u v x I) as [(o & Io & ->)|(o & Io & _ & ->)]; unfold eG, eH; simpl.
    - left. exact (wf_host_orders G u v o HG Io).
    - right. exact (wf_host_orders H u v o HH Io).
  Qed.

  Let SP := get_rc_spec T0 NHH T0_closed.

  Lemma rc_in_T0 u v x : In (u, v, x) (gedges rc) -> In (u, v, x) (gedges T0) /\ changed x = true.
  Proof. intros I. unfold rc in I. rewrite (proj1 (proj2 (proj2 SP))) in I. apply filter_In in I. exact I. Qed.
  Lemma rc_edges_pos : edges_pos rc.
  Proof. intros u v x I. apply (T0_edges_pos u v x). exact (proj1 (rc_in_T0 u v x I)). Qed.

  Lemma rc_node n a : In (n, a) (gnodes rc) -> In n (node_ids G) /\ iG a = side_tuple G n /\ iH a = side_tuple H n.
  Proof.
    intros I. destruct (proj1 (proj2 SP) n a I) as (a' & E & ->). destruct (T0_label n a' E) as [-> In_]. auto.
  Qed.

  Theorem rc_fits : fits G H rc.
  Proof.
    constructor.
    - exact (wf_rcb_filter T0 rc _ (construct_wf G H PW) (proj1 SP) (proj1 (proj2 (proj2 SP)))).
    - intros n a I. destruct (rc_node n a I) as (In_ & E1 & E2). destruct (in_ids_label G n In_) as [x Ex].
      destruct (in_ids_label H n (proj1 (pw_ids _ _ PW n) In_)) as [y Ey]. exists x, y.
      unfold node_fit. rewrite E1, E2. unfold side_tuple. rewrite Ex, Ey. repeat split; auto; lia.
    - intros u v x I. destruct (proj2 (proj2 (proj2 SP)) u v x I) as [Iu Iv]. destruct (rc_in_T0 u v x I) as [I0 _].
      destruct (construct_edge_orders G H PW CG CH u v x I0) as (_ & _ & Eg & Eh & _). auto.
  Qed.

  Theorem rc_describes : centre_carries T0 = true -> describes G H rc.
  Proof.
    intros CC. constructor.
    - exact rc_fits.
    - intros u v NE. destruct (construct_cover G H u v NE) as [x Ex].
      exists x. unfold adj, rc. rewrite (proj1 (proj2 (proj2 SP))). apply (find_edge_filter changed); [exact Ex|].
      unfold adj in Ex. apply find_edge_in in Ex. destruct Ex as (p & q & I & Hp).
      destruct (construct_edge_orders G H PW CG CH p q x I) as (_ & _ & Eg & Eh & Es).
      rewrite (order_in_peq G p q u v Hp) in Eg. rewrite (order_in_peq H p q u v Hp) in Eh.
      unfold changed. apply negb_true_iff. apply Z.eqb_neq. lia.
    - intros n x y Ex Ey NE. destruct (in_dec N.eq_dec n (node_ids rc)) as [I|NI]; [exact I|]. exfalso. apply NE.
      unfold centre_carries in CC. fold T0 in CC. fold rc in CC.
      destruct (outside_change T0 rc) eqn:Eo; [|discriminate]. unfold outside_change in Eo.
      apply map_eq_nil in Eo.
      assert (In_ : In n (node_ids G)) by exact (label_some_in G n x Ex).
      destruct (in_ids_label T0 n (proj2 (construct_ids_in G H PW n) In_)) as [a Ea].
      pose proof (filter_nil_inv _ _ Eo (n, a) (assoc_in n (gnodes T0) Ea)) as Hf. simpl in Hf.
      assert (Hn : has_node rc n = false).
      { unfold has_node. destruct (label rc n) as [b|] eqn:Eb; [|reflexivity]. exfalso. exact (NI (label_some_in rc n b Eb)). }
      rewrite Hn in Hf. simpl in Hf. destruct (T0_label n a Ea) as [-> _].
      unfold its_node, side_tuple in Hf; simpl in Hf. rewrite Ex, Ey in Hf.
      apply orb_false_elim in Hf. destruct Hf as [H1 H2].
      apply negb_false_iff in H1. apply negb_false_iff in H2. apply Z.eqb_eq in H1. apply Z.eqb_eq in H2.
      unfold sel. rewrite (pw_el _ _ PW n x y Ex Ey), H1, H2. reflexivity.
  Qed.
End Centre.

(** a pair written without hydrogen atoms: no H-H bond, no explicit hydrogen in the centre *)
Section NoH.
  Variables G H : hostg.
  Hypothesis PW : pair_wf G H.
  Hypothesis CG : closed G.
  Hypothesis CH : closed H.
  Hypothesis NH : no_explicit_H G = true.

  Lemma G_not_H n x : label G n = Some x -> N.eqb (a_el x) EL_H = false.
  Proof.
    intros E. unfold no_explicit_H in NH. eapply forallb_elim in NH; [|exact (assoc_in n (gnodes G) E)]. simpl in NH. apply negb_true_iff. exact NH.
  Qed.
  Lemma T0_noH u : is_H_i (its_construct G H) u = false.
  Proof.
    unfold is_H_i. destruct (label (its_construct G H) u) as [a|] eqn:E; [|reflexivity].
    destruct (T0_label G H PW u a E) as [-> I]. destruct (in_ids_label G u I) as [x Ex].
    unfold its_node, side_tuple; simpl. rewrite Ex. exact (G_not_H u x Ex).
  Qed.
  Lemma noH_noHH : forall u v x, In (u, v, x) (gedges (its_construct G H)) -> is_hh (its_construct G H) u v = false.
  Proof. intros u v x _. unfold is_hh. rewrite T0_noH. reflexivity. Qed.
  Lemma rc_no_explicit : explicit_centre (get_rc (its_construct G H)) = false.
  Proof.
    unfold explicit_centre. destruct (existsb _ (gnodes (get_rc (its_construct G H)))) eqn:E; [|reflexivity]. exfalso.
    apply existsb_exists in E. destruct E as ([n a] & I & Hh). simpl in Hh.
    destruct (rc_node G H PW CG CH noH_noHH n a I) as (In_ & E1 & _). destruct (in_ids_label G n In_) as [x Ex].
    rewrite E1 in Hh. unfold side_tuple in Hh. rewrite Ex, (G_not_H n x Ex) in Hh. discriminate.
  Qed.
End NoH.

(** * inversion *)
Lemma sel_inv_tuple t : sel (inv_tuple t) = sel t.
Proof. reflexivity. Qed.

Section Invert.
  Variables (A B : hostg) (t : its).
  Hypothesis HA : wf_hostb A = true.
  Hypothesis HB : wf_hostb B = true.

  Lemma invert_fits : fits A B t -> fits B A (invert_template t).
  Proof.
    intros F. constructor.
    - apply invert_wf. exact (f_wf _ _ _ F).
    - intros n a I. rewrite invert_gnodes in I. apply in_map_iff in I. destruct I as ([k a0] & E & I). simpl in E. inversion E; subst.
      destruct (f_nodes _ _ _ F n a0 I) as (x & y & Ex & Ey & E1 & E2 & E3 & E4 & E5 & E6). exists y, x.
      unfold node_fit, inv_node; simpl. repeat split; auto; lia.
    - intros u v y I. destruct (invert_edge_inv t u v y I) as (x & Ix & _ & Eg & Eh & _).
      destruct (f_edges _ _ _ F u v x Ix) as (Iu & Iv & Egx & Ehx). rewrite !invert_ids.
      pose proof (order_in_nonneg A u v HA). pose proof (order_in_nonneg B u v HB). repeat split; auto; lia.
  Qed.

  Lemma invert_describes : describes A B t -> edges_pos t -> describes B A (invert_template t).
  Proof.
    intros D EP. constructor.
    - apply invert_fits. exact (d_fits _ _ _ D).
    - intros u v NE. destruct (d_cover_e _ _ _ D u v (not_eq_sym NE)) as [x Ex].
      unfold adj in Ex. apply find_edge_in in Ex. destruct Ex as (p & q & I & Hp).
      destruct (wf_rc_nonneg t p q x (d_wf _ _ _ D) I) as [N1 N2].
      pose proof (invert_edge_in t p q x I N1 N2 (EP p q x I)) as I'.
      unfold adj. exact (in_find_some _ u v p q _ I' Hp).
    - intros n x y Ex Ey NE. rewrite invert_ids. exact (d_cover_n _ _ _ D n y x Ey Ex (not_eq_sym NE)).
  Qed.
End Invert.
