(** C09 — back-end wl is NOT numbering independent under the property's hypothesis "all reactant atoms distinguishable":
    1-bromononane + hydroxide.  The mid-chain atoms 5 and 6 are distinguishable (the graph has no
    non-trivial automorphism: the nauty search finds exactly ONE minimal leaf, and by C08_Auts.nauty_auts_complete every
    automorphism yields one) but share their WL colour after the default 3 rounds (ranks below = the colours networkx returns,
    shipped by the harness); the tie is broken by the node id, i.e. by the input numbering: exchanging the numbers 5 and 6
    exchanges their canonical ids and the canonical graphs differ - while back-end nauty gives the same graph. *)
From Coq Require Import List NArith ZArith Bool Arith Lia Permutation.
From SK Require Import lib.LGraph lib.C01_GraphLemmas model.C01_Model model.C09_Model
  proof.C09_Lists proof.C09_Canon proof.C09_Equiv proof.C09_Main proof.C09_Indep proof.C09_Graph.
From SK Require model.C08_Model.
Import ListNotations.
Local Open Scope Z_scope.

Definition wt_G : mgraph := (LG [(1%N, (GN 17013%N false (0) (0) (Some [70%N]) (1))); (2%N, (GN 70%N false (2) (0) (Some [17013%N; 70%N]) (2))); (3%N, (GN 70%N false (2) (0) (Some [70%N; 70%N]) (3))); (4%N, (GN 70%N false (2) (0) (Some [70%N; 70%N]) (4))); (5%N, (GN 70%N false (2) (0) (Some [70%N; 70%N]) (5))); (6%N, (GN 70%N false (2) (0) (Some [70%N; 70%N]) (6))); (7%N, (GN 70%N false (2) (0) (Some [70%N; 70%N]) (7))); (8%N, (GN 70%N false (2) (0) (Some [70%N; 70%N]) (8))); (9%N, (GN 70%N false (2) (0) (Some [70%N; 70%N]) (9))); (10%N, (GN 70%N false (3) (0) (Some [70%N]) (10))); (11%N, (GN 82%N false (1) (-1) (Some []) (11)))] [(1%N, 2%N, (2)); (2%N, 3%N, (2)); (3%N, 4%N, (2)); (4%N, 5%N, (2)); (5%N, 6%N, (2)); (6%N, 7%N, (2)); (7%N, 8%N, (2)); (8%N, 9%N, (2)); (9%N, 10%N, (2))]).
Definition wt_H : mgraph := (LG [(2%N, (GN 70%N false (2) (0) (Some [70%N; 82%N]) (2))); (3%N, (GN 70%N false (2) (0) (Some [70%N; 70%N]) (3))); (4%N, (GN 70%N false (2) (0) (Some [70%N; 70%N]) (4))); (5%N, (GN 70%N false (2) (0) (Some [70%N; 70%N]) (5))); (6%N, (GN 70%N false (2) (0) (Some [70%N; 70%N]) (6))); (7%N, (GN 70%N false (2) (0) (Some [70%N; 70%N]) (7))); (8%N, (GN 70%N false (2) (0) (Some [70%N; 70%N]) (8))); (9%N, (GN 70%N false (2) (0) (Some [70%N; 70%N]) (9))); (10%N, (GN 70%N false (3) (0) (Some [70%N]) (10))); (11%N, (GN 82%N false (1) (0) (Some [70%N]) (11))); (1%N, (GN 17013%N false (0) (-1) (Some []) (1)))] [(2%N, 3%N, (2)); (2%N, 11%N, (2)); (3%N, 4%N, (2)); (4%N, 5%N, (2)); (5%N, 6%N, (2)); (6%N, 7%N, (2)); (7%N, 8%N, (2)); (8%N, 9%N, (2)); (9%N, 10%N, (2))]).
Definition wt_ranks1 : list (N * Z) := [(1%N, (2)); (2%N, (4)); (3%N, (8)); (4%N, (5)); (5%N, (7)); (6%N, (7)); (7%N, (0)); (8%N, (9)); (9%N, (3)); (10%N, (1)); (11%N, (6))].
Definition wt_p : N -> N := transp 5 6.
Definition wt_ranks2 : list (N * Z) := map (fun q : N * Z => (wt_p (fst q), snd q)) wt_ranks1.
Definition wt_G' : mgraph := set_amap (relabel wt_p wt_G).
Definition wt_H' : mgraph := set_amap (relabel wt_p wt_H).

Lemma wt_G_parsed : parsed wt_G.
Proof. apply parsedb_sound. vm_compute. reflexivity. Qed.
Lemma wt_H_parsed : parsed wt_H.
Proof. apply parsedb_sound. vm_compute. reflexivity. Qed.

(** what the theorem compares of a result: the bonds of the canonical reactant graph, each written with the smaller id first *)
Definition edges_of (r : option (mgraph * list (N * N) * mgraph)) : list (N * N * Z) :=
  match r with Some (Gc, _, _) => map nflip (gedges Gc) | None => [] end.
Lemma edges_of_some r e l : edges_of r = e :: l ->
  exists Gc pr Hc, r = Some (Gc, pr, Hc) /\ map nflip (gedges Gc) = e :: l.
Proof. destruct r as [[[Gc pr] Hc]|]; [intros E; exists Gc, pr, Hc; auto|discriminate]. Qed.

(** both graphs of a result, atoms and normalised bonds in listing order: two runs that agree on it return the same graphs *)
Definition listing (r : mgraph * list (N * N) * mgraph) :=
  let '(Gc, _, Hc) := r in (gnodes Gc, map nflip (gedges Gc), (gnodes Hc, map nflip (gedges Hc))).
Lemma same_listing r r' : r <> None -> option_map listing r' = option_map listing r ->
  exists Nc1 qr1 Mc1 Nc2 qr2 Mc2, r = Some (Nc1, qr1, Mc1) /\ r' = Some (Nc2, qr2, Mc2) /\ same_graph Nc2 Nc1 /\ same_graph Mc2 Mc1.
Proof.
  destruct r as [[[Nc1 qr1] Mc1]|]; [intros _|congruence]. destruct r' as [[[Nc2 qr2] Mc2]|]; [|discriminate].
  intros [= A B C D]. exists Nc1, qr1, Mc1, Nc2, qr2, Mc2. unfold same_graph. rewrite A, B, C, D. auto.
Qed.

Theorem numbering_independent_wl_refuted :
  exists (ranks1 ranks2 : list (N * Z)) (G H G' H' : mgraph) (p : N -> N),
    parsed G /\ parsed H /\ parsed G' /\ parsed H' /\ (exists s, In s (node_ids G) /\ In s (node_ids H)) /\
    (forall a b, p a = p b -> a = b) /\ presents p G G' /\ presents p H H' /\
    (forall n, In n (node_ids G) -> C08_Model.rank_of ranks2 (p n) = C08_Model.rank_of ranks1 n) /\
    (* all reactant atoms distinguishable: the nauty search ends with exactly one minimal leaf *)
    length (snd (C08_Model.nauty_acc (to_c08 G))) = 1%nat /\
    (* every product atom has a reactant partner: the order hypothesis on partner-less product atoms is vacuous *)
    (forall n, In n (node_ids H) -> In n (node_ids G)) /\
    exists Gc1 pr1 Hc1 Gc2 pr2 Hc2 Nc1 qr1 Mc1 Nc2 qr2 Mc2,
      canonicalise_wl ranks1 G H = Some (Gc1, pr1, Hc1) /\ canonicalise_wl ranks2 G' H' = Some (Gc2, pr2, Hc2) /\
      ~ same_graph Gc2 Gc1 /\
      (* the complete back-end does not see the renumbering *)
      canonicalise_nauty G H = Some (Nc1, qr1, Mc1) /\ canonicalise_nauty G' H' = Some (Nc2, qr2, Mc2) /\
      same_graph Nc2 Nc1 /\ same_graph Mc2 Mc1.
Proof.
  exists wt_ranks1, wt_ranks2, wt_G, wt_H, wt_G', wt_H', wt_p.
  split; [exact wt_G_parsed|]. split; [exact wt_H_parsed|].
  split; [apply parsedb_sound; vm_compute; reflexivity|]. split; [apply parsedb_sound; vm_compute; reflexivity|].
  assert (Hs : exists s, In s (node_ids wt_G) /\ In s (node_ids wt_H)) by (exists 2%N; simpl; auto).
  split; [exact Hs|]. split; [apply transp_inj|]. split; [apply sg_refl|]. split; [apply sg_refl|].
  split.
  { assert (K : forallb (fun n => Z.eqb (C08_Model.rank_of wt_ranks2 (wt_p n)) (C08_Model.rank_of wt_ranks1 n)) (node_ids wt_G) = true)
      by (vm_compute; reflexivity).
    intros n I. apply Z.eqb_eq. exact (proj1 (forallb_forall _ _) K n I). }
  split; [vm_compute; reflexivity|].
  split.
  { assert (K : forallb (fun n => mem n (node_ids wt_G)) (node_ids wt_H) = true) by (vm_compute; reflexivity).
    intros n I. apply mem_spec. exact (proj1 (forallb_forall _ _) K n I). }
  (* the canonical reactant graph of the first run has the bond 6-8 where that of the second has 6-9 *)
  destruct (edges_of_some (canonicalise_wl wt_ranks1 wt_G wt_H) (3%N, 5%N, 2)
              [(5%N, 10%N, 2); (6%N, 10%N, 2); (6%N, 8%N, 2); (8%N, 9%N, 2); (1%N, 9%N, 2); (1%N, 11%N, 2); (4%N, 11%N, 2); (2%N, 4%N, 2)])
    as (Gc1 & pr1 & Hc1 & E1 & L1); [vm_compute; reflexivity|].
  destruct (edges_of_some (canonicalise_wl wt_ranks2 wt_G' wt_H') (3%N, 5%N, 2)
              [(5%N, 10%N, 2); (6%N, 10%N, 2); (6%N, 9%N, 2); (8%N, 9%N, 2); (1%N, 8%N, 2); (1%N, 11%N, 2); (4%N, 11%N, 2); (2%N, 4%N, 2)])
    as (Gc2 & pr2 & Hc2 & E2 & L2); [vm_compute; reflexivity|].
  destruct (same_listing (canonicalise_nauty wt_G wt_H) (canonicalise_nauty wt_G' wt_H'))
    as (Nc1 & qr1 & Mc1 & Nc2 & qr2 & Mc2 & F1 & F2 & S1 & S2); [|vm_compute; reflexivity|].
  { destruct (canon_nauty_is_relabelling wt_G wt_H wt_G_parsed wt_H_parsed Hs) as (f & Hc & pairs & _ & E & _). rewrite E. discriminate. }
  exists Gc1, pr1, Hc1, Gc2, pr2, Hc2, Nc1, qr1, Mc1, Nc2, qr2, Mc2.
  split; [exact E1|]. split; [exact E2|]. split; [|auto].
  intros (_ & P). rewrite L1, L2 in P. apply (Permutation_in (6%N, 9%N, 2)) in P; [|simpl; auto 10].
  simpl in P. intuition discriminate.
Qed.
