(** C18 — orbits reported by the canonicaliser.  For a group of self-maps whose images of the best permutation are exactly
    the minimal leaves, the reported sets are the group's orbits ([group_orbits_sound], [group_orbits_exact], from
    proof/C18_OrbSound.v and proof/C18_OrbComplete.v); [canon_orbits] is the case of the structure-preserving self-maps. *)
From Coq Require Import List NArith ZArith Bool Arith Lia Permutation.
From SK Require Import lib.IRSortKeys lib.IRCore lib.IRSearch model.C18_Model
  proof.C18_Order proof.C18_Spec proof.C18_Graph proof.C18_Canon proof.C18_Label proof.C18_Aut proof.C18_Invariant
  proof.C18_Count proof.C18_Vf2 proof.C18_Orbits proof.C18_OrbSound proof.C18_OrbComplete.
Import ListNotations.

(** the best permutation is the first of the minimal leaves *)
Lemma fold_visit_head {L} (leb : L -> L -> bool) (label : list N -> L) l : forall a,
  (forall bl bp, fst a = Some (bl, bp) -> hd_error (snd a) = Some bp) ->
  forall bl bp, fst (fold_left (visit leb label) l a) = Some (bl, bp) -> hd_error (snd (fold_left (visit leb label) l a)) = Some bp.
Proof.
  induction l as [|p l IH]; intros a Ha; simpl; auto. apply IH.
  intros bl bp. unfold visit. destruct (fst a) as [[b q]|] eqn:Ea.
  - destruct (ltb leb (label p) b); simpl; [intros E; inversion E; auto|].
    pose proof (Ha b q eq_refl) as Hh.
    destruct (eqb leb (label p) b); simpl; rewrite ?Ea; intros E; inversion E as [[E1 E2]]; rewrite <- E2.
    + destruct (snd a); simpl in *; [discriminate|auto].
    + exact Hh.
  - simpl. intros E; inversion E; auto.
Qed.

Lemma visit_best_first {L} (leb : L -> L -> bool) (label : list N -> L) l bl bp :
  fst (fold_left (visit leb label) l (None, [])) = Some (bl, bp) ->
  exists rest, snd (fold_left (visit leb label) l (None, [])) = bp :: rest.
Proof.
  intros Hb.
  assert (H : hd_error (snd (fold_left (visit leb label) l (None, []))) = Some bp).
  { apply (fold_visit_head leb label l (None, [])) with (bl := bl); [|exact Hb]. intros ? ? E. discriminate E. }
  destruct (snd (fold_left (visit leb label) l (None, []))) as [|x r]; simpl in H; [discriminate|]. inversion H; subst. eauto.
Qed.

Lemma min_leaves_head g lab p : fst (canon_search g) = Some (lab, p) -> exists rest, min_leaves g = p :: rest.
Proof. unfold min_leaves. rewrite canon_search_fold. apply visit_best_first. Qed.

(** The orbit computation on the minimal leaves of a group [G] of self-maps of [nodes] (identity, composition, inverses on
    the nodes): when the leaves are exactly the images of the first one under [G], and the first one lists exactly the nodes,
    the reported sets are the orbits of [G]. *)
Section GroupOrbits.
Variables (nodes : list N) (G : (N -> N) -> Prop) (p : list N) (rest : list (list N)).
Hypothesis G_id : G (fun v => v).
Hypothesis G_comp : forall s t, G s -> G t -> G (fun v => t (s v)).
Hypothesis G_inv : forall s, G s -> exists t, G t /\ forall v, In v nodes -> t (s v) = v.
Hypothesis G_cl : forall s v, G s -> In v nodes -> In (s v) nodes.
Hypothesis Hp : forall v, In v p <-> In v nodes.
Hypothesis Miff : forall q, In q (p :: rest) <-> exists s, G s /\ q = map s p.

Definition exch (x y : N) : Prop := In x nodes /\ In y nodes /\ exists s, G s /\ s x = y.

Lemma exch_sym x y : exch x y -> exch y x.
Proof.
  intros (Hx & Hy & s & Hs & <-). split; [exact Hy|]. split; [exact Hx|].
  destruct (G_inv s Hs) as (t & Ht & Hl). exists t. split; [exact Ht|apply Hl, Hx].
Qed.
Lemma exch_trans x y z : exch x y -> exch y z -> exch x z.
Proof.
  intros (Hx & Hy & s & Hs & <-) (_ & Hz & t & Ht & <-). split; [exact Hx|]. split; [exact Hz|].
  exists (fun v => t (s v)). split; [apply G_comp; assumption|reflexivity].
Qed.
Lemma exch_refl x : In x p -> exch x x.
Proof. intros Hx. apply Hp in Hx. split; [exact Hx|]. split; [exact Hx|]. exists (fun v => v). split; [exact G_id|reflexivity]. Qed.
Lemma nth_map_leaf s i : i < length p -> nth i (map s p) 0%N = s (nth i p 0%N).
Proof. intros Hi. rewrite (nth_indep _ 0%N (s 0%N)) by (rewrite map_length; exact Hi). apply map_nth. Qed.
Lemma exch_leaves q : In q rest -> length q = length p /\
  forall i, i < length p -> In (nth i q 0%N) p /\ exch (nth i p 0%N) (nth i q 0%N).
Proof.
  intros Hq. destruct (proj1 (Miff q) (or_intror Hq)) as (s & Hs & ->). split; [apply map_length|].
  intros i Hi. rewrite (nth_map_leaf s i Hi).
  assert (Hn : In (nth i p 0%N) nodes) by (apply Hp, nth_In, Hi).
  split; [apply Hp, G_cl; assumption|]. split; [exact Hn|]. split; [apply G_cl; assumption|eauto].
Qed.

Theorem group_orbits_sound :
  (forall c, In c (orbits_from_perms (p :: rest)) -> forall x y, In x c -> In y c -> exists s, G s /\ s x = y) /\
  (forall v, In v nodes -> exists c, In c (orbits_from_perms (p :: rest)) /\ In v c).
Proof.
  destruct (orbits_from_perms_sound p rest exch exch_sym exch_trans exch_refl exch_leaves) as [S1 S2]. split.
  - intros c Hc x y Hx Hy. destruct (S1 c Hc x y Hx Hy) as (_ & _ & H). exact H.
  - intros v Hv. apply S2, Hp, Hv.
Qed.

Theorem group_orbits_exact u v : In u nodes ->
  ((exists c, In c (orbits_from_perms (p :: rest)) /\ In u c /\ In v c) <-> (exists s, G s /\ s u = v)).
Proof.
  intros Hu. destruct group_orbits_sound as [Snd Cov].
  split; [intros (c & Hc & Huc & Hvc); apply (Snd c Hc u v Huc Hvc)|].
  intros (s & Hs & <-). destruct (Cov u Hu) as (c & Hc & Huc). exists c. split; [exact Hc|]. split; [exact Huc|].
  destruct (orbits_from_perms_complete p rest exch exch_sym exch_trans exch_refl exch_leaves c Hc) as (a & Hal & Hhome & Hall).
  (* u = w home for some w in G, so s u is the entry at the home position of the leaf of s o w *)
  destruct (Snd c Hc _ _ Hhome Huc) as (w & Hw & Ew).
  assert (Ht : G (fun x => s (w x))) by (apply G_comp; assumption).
  assert (Hq : In (map (fun x => s (w x)) p) (p :: rest)) by (apply Miff; eauto).
  assert (En : nth a (map (fun x => s (w x)) p) 0%N = s u) by (rewrite (nth_map_leaf _ a Hal), Ew; reflexivity).
  destruct Hq as [Eq|Hq]; rewrite <- En.
  - rewrite <- Eq. exact Hhome.
  - apply Hall, Hq.
Qed.
End GroupOrbits.

Section CanonOrbits.
Variables (g : vgraph) (lab p : list N).
Hypotheses (Hw : wf g) (Hk : kinds_ok g) (Ha : arcs_ok g) (Hb : fst (canon_search g) = Some (lab, p)).

Theorem canon_orbits_sound :
  (forall c, In c (orbits_from_perms (min_leaves g)) -> forall x y, In x c -> In y c -> exists s, is_aut g s /\ s x = y) /\
  (forall v, In v (node_ids g) -> exists c, In c (orbits_from_perms (min_leaves g)) /\ In v c).
Proof.
  destruct (aut_count g lab p Hw Hk Ha Hb) as (_ & Miff & _). destruct (min_leaves_head g lab p Hb) as (rest & Eml).
  rewrite Eml in *.
  exact (group_orbits_sound (node_ids g) (is_aut g) p rest (aut_id g) (aut_comp g) (fun s => aut_inv g s Hw)
           (fun s v Hs => proj1 (proj2 Hs) v) (best_perm_nodes g lab p Hw Hb) Miff).
Qed.

(** clause 4, orbits of the canonicaliser, in full *)
Theorem canon_orbits : forall u v, In u (node_ids g) ->
    ((exists c, In c (orbits_from_perms (min_leaves g)) /\ In u c /\ In v c) <-> (exists s, is_aut g s /\ s u = v)).
Proof.
  destruct (aut_count g lab p Hw Hk Ha Hb) as (_ & Miff & _). destruct (min_leaves_head g lab p Hb) as (rest & Eml).
  rewrite Eml in *.
  exact (group_orbits_exact (node_ids g) (is_aut g) p rest (aut_id g) (aut_comp g) (fun s => aut_inv g s Hw)
           (fun s v Hs => proj1 (proj2 Hs) v) (best_perm_nodes g lab p Hw Hb) Miff).
Qed.
End CanonOrbits.

Lemma canon_orbits_cover g lab p : wf g -> kinds_ok g -> arcs_ok g -> fst (canon_search g) = Some (lab, p) ->
  forall v, In v (node_ids g) -> exists c, In c (orbits_from_perms (min_leaves g)) /\ In v c.
Proof. intros Hw Hk Ha Hb. exact (proj2 (canon_orbits_sound g lab p Hw Hk Ha Hb)). Qed.
