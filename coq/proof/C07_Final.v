(** C07 — the engine's verdicts.  First the cache-free functions (with the WL-1 necessity of C07_WL.v), then the functions the
    correspondence evaluates ([isomorphic], [get_mappings], [pre_check] of model/C07_Model.v, WITH the cache), which answer alike
    under the cache invariant of C07_History.v.  Stdlib lists. *)
From Coq Require Import List NArith Bool Arith Lia.
From SK Require Import lib.LGraph model.C07_Model
  proof.C07_Spec proof.C07_History proof.C07_Filters proof.C07_Main proof.C07_WL proof.C07_Relabel.
Import ListNotations.

Section Engine.
Variable vf2b : bool -> (attrs -> attrs -> bool) -> (attrs -> attrs -> bool) -> graph -> graph -> bool.
Variable enum : (attrs -> attrs -> bool) -> (attrs -> attrs -> bool) -> graph -> graph -> list mapping.
Hypothesis VB : vf2b_contract vf2b.
Hypothesis EN : enum_contract enum.

(** (1) verdict of isomorphic.  Both branches after _pre_check ask VF2 the same question: is the second graph an induced subgraph of
    the first (is_isomorphic only adds the order test, which has just succeeded); the first being the smaller one, that is isomorphism. *)
Lemma iso_or_sub nm em ga gb :
  (if n_nodes ga =? n_nodes gb then is_isomorphic vf2b nm em ga gb else vf2b true nm em ga gb) = vf2b true nm em ga gb.
Proof. unfold is_isomorphic. destruct (n_nodes ga =? n_nodes gb); reflexivity. Qed.

Theorem isomorphic_spec e g1 g2 : gwf g1 -> gwf g2 ->
  (isomorphic_p vf2b e g1 g2 = true <-> exists f, iso_map (nm_eng e) (em_eng e) g1 g2 f).
Proof.
  intros W1 W2. rewrite iso_iff_contained; auto. unfold isomorphic_p.
  destruct (n_nodes g2 <? n_nodes g1) eqn:Lt; rewrite iso_or_sub; apply (filtered_iff true).
  - apply Nat.ltb_lt in Lt. intros (En & _). lia.
  - apply Nat.ltb_lt in Lt. rewrite (VB true _ _ g2 g1 W2 W1). split; [|intros (En & _); lia].
    intros (f & He). pose proof (emb_n_nodes _ _ _ _ _ _ (gwf_nodup g1 W1) He). lia.
  - intros (En & f & He). destruct (iso_inverse _ _ _ _ _ (emb_onto _ _ _ _ _ W1 W2 En He)) as ((Hinv & _) & _).
    apply (pre_check_necessary e (flip2 (nm_eng e)) (flip2 (em_eng e)) g2 g1 W2 W1 (flip_respects _ _ (nm_eng_respects e)) (ex_intro _ _ Hinv)).
  - apply Nat.ltb_ge in Lt. rewrite (VB true _ _ g1 g2 W1 W2). split; [|tauto]. intros C. split; [|exact C].
    destruct C as (f & He). pose proof (emb_n_nodes _ _ _ _ _ _ (gwf_nodup g2 W2) He). lia.
Qed.

Theorem get_mappings_nonempty e H P : gwf H -> gwf P -> e_mm e <> Some 0%N ->
  contained true (nm_eng e) (em_eng e) H P -> get_mappings_p vf2b enum e H P <> [].
Proof.
  intros WH WP Hmm C. destruct (EN (nm_eng e) (em_eng e) H P WH WP) as (_ & Ec). specialize (Ec C).
  unfold get_mappings_p. rewrite (pre_check_necessary e _ _ H P WH WP (nm_eng_respects e) C). simpl.
  destruct ((n_nodes P =? n_nodes H) && (n_edges P =? n_edges H)) eqn:T.
  - apply andb_true_iff in T. destruct T as (T & _). apply Nat.eqb_eq, eq_sym in T.
    rewrite (proj2 (is_isomorphic_spec vf2b VB _ _ H P WH WP) (proj2 (iso_iff_contained _ _ H P WH WP) (conj T C))). destruct (enum (nm_eng e) (em_eng e) H P); [congruence|discriminate].
  - unfold take. destruct (e_mm e) as [k|]; auto.
    destruct (enum (nm_eng e) (em_eng e) H P) as [|m0 r]; [congruence|].
    destruct (N.to_nat k) eqn:K; [|simpl; discriminate]. exfalso. apply Hmm. f_equal. lia.
Qed.

(** (5, engine) the WL filter flag changes neither the verdict nor the result list *)
Theorem isomorphic_filter_transparent e b g1 g2 : gwf g1 -> gwf g2 ->
  isomorphic_p vf2b (set_wl e b) g1 g2 = isomorphic_p vf2b e g1 g2.
Proof. intros W1 W2. apply bool_iff. rewrite !isomorphic_spec; auto. tauto. Qed.

Lemma enum_empty nm em H P : gwf H -> gwf P -> ~ contained true nm em H P -> enum nm em H P = [].
Proof.
  intros WH WP Hn. destruct (EN nm em H P WH WP) as (Ev & _). destruct (enum nm em H P) as [|m r]; auto.
  exfalso. apply Hn. exists (mfun m). apply (Ev m). left. reflexivity.
Qed.

Lemma pre_check_wl_mono e H P : pre_check_p e H P = true -> pre_check_p (set_wl e false) H P = true.
Proof.
  unfold pre_check_p. simpl. destruct ((n_nodes H <? n_nodes P) || (n_edges H <? n_edges P)); auto.
Qed.

(** where the filter rejects nothing is contained, so VF2 enumerates nothing and the unfiltered call returns nothing either *)
Lemma get_mappings_wl_off e H P : gwf H -> gwf P ->
  get_mappings_p vf2b enum e H P = get_mappings_p vf2b enum (set_wl e false) H P.
Proof.
  intros WH WP. destruct (pre_check_p e H P) eqn:A.
  - unfold get_mappings_p. rewrite A, (pre_check_wl_mono e H P A). reflexivity.
  - transitivity (@nil mapping); [unfold get_mappings_p; rewrite A; reflexivity|]. symmetry. apply incl_l_nil.
    rewrite <- (enum_empty (nm_eng e) (em_eng e) H P WH WP); [apply (get_mappings_incl vf2b enum (set_wl e false))|].
    intros C. rewrite (pre_check_necessary e _ _ H P WH WP (nm_eng_respects e) C) in A. discriminate.
Qed.

Theorem get_mappings_filter_transparent e b H P : gwf H -> gwf P ->
  get_mappings_p vf2b enum (set_wl e b) H P = get_mappings_p vf2b enum e H P.
Proof.
  intros WH WP. rewrite (get_mappings_wl_off e H P WH WP), (get_mappings_wl_off (set_wl e b) H P WH WP). reflexivity.
Qed.

(** (2b) symmetry for equal / absent hydrogen counts *)
Theorem isomorphic_symmetric e c g1 g2 : gwf g1 -> gwf g2 -> hc_all c g1 -> hc_all c g2 ->
  isomorphic_p vf2b e g1 g2 = isomorphic_p vf2b e g2 g1.
Proof.
  intros W1 W2 H1 H2. apply bool_iff. rewrite !isomorphic_spec; auto.
  assert (S : forall ga gb, hc_all c ga -> hc_all c gb ->
              (exists f, iso_map (nm_eng e) (em_eng e) ga gb f) -> exists f, iso_map (nm_eng e) (em_eng e) gb ga f).
  { intros ga gb Ha Hb (f & Hi). eexists. apply (iso_flip _ _ _ _ _ _ _ Hi); [|intros b b'; apply em_eng_flip].
    intros u Iu Hn. apply (nm_eng_flip _ _ _ Hn). rewrite (Hb u Iu), (Ha (f u)); [lia | apply Hi; exact Iu]. }
  split; apply S; auto.
Qed.

(** (2a) renaming either argument *)
Theorem isomorphic_relabel_1 e r g1 g2 : gwf g1 -> gwf g2 -> inj_on r (node_ids g1) ->
  isomorphic_p vf2b e (grelabel r g1) g2 = isomorphic_p vf2b e g1 g2.
Proof.
  intros W1 W2 Ri. apply bool_iff. rewrite !isomorphic_spec; auto using gwf_relabel. apply iso_relabel_host_iff; auto.
Qed.

Theorem isomorphic_relabel_2 e r g1 g2 : gwf g1 -> gwf g2 -> inj_on r (node_ids g2) ->
  isomorphic_p vf2b e g1 (grelabel r g2) = isomorphic_p vf2b e g1 g2.
Proof.
  intros W1 W2 Ri. apply bool_iff. rewrite !isomorphic_spec; auto using gwf_relabel. apply iso_relabel_pat_iff; auto.
Qed.
End Engine.

Section Final.
Variable vf2b : bool -> (attrs -> attrs -> bool) -> (attrs -> attrs -> bool) -> graph -> graph -> bool.
Variable enum : (attrs -> attrs -> bool) -> (attrs -> attrs -> bool) -> graph -> graph -> list mapping.

Lemma iso_fst gs e i j c : cache_inv gs c ->
  fst (isomorphic vf2b e i (gnth gs i) j (gnth gs j) c) = isomorphic_p vf2b e (gnth gs i) (gnth gs j).
Proof. intros Hc. destruct (isomorphic_via_pre vf2b gs e i j c) as (hi & pi & _ & V). apply V, pre_check_pure, Hc. Qed.

Lemma maps_fst gs e hi pi c : cache_inv gs c ->
  fst (get_mappings vf2b enum e hi (gnth gs hi) pi (gnth gs pi) c) = get_mappings_p vf2b enum e (gnth gs hi) (gnth gs pi).
Proof. intros Hc. apply get_mappings_via_pre, pre_check_pure, Hc. Qed.

Lemma pre_fst gs e hi pi c : cache_inv gs c ->
  fst (pre_check e hi (gnth gs hi) pi (gnth gs pi) c) = pre_check_p e (gnth gs hi) (gnth gs pi).
Proof. intros Hc. apply pre_check_pure. exact Hc. Qed.

Theorem iso_verdict : vf2b_contract vf2b ->
  forall gs e i j c, cache_inv gs c -> gwf (gnth gs i) -> gwf (gnth gs j) ->
    (fst (isomorphic vf2b e i (gnth gs i) j (gnth gs j) c) = true <->
     exists f, iso_map (nm_eng e) (em_eng e) (gnth gs i) (gnth gs j) f).
Proof. intros VB gs e i j c Hc Wi Wj. rewrite iso_fst; auto. apply (isomorphic_spec vf2b VB); auto. Qed.

Theorem comparators e h p :
  (nm_eng e h p = true <-> (forall k, In k (e_na e) -> get k h = get k p) /\ (hc p <= hc h)%N) /\
  (em_eng e h p = true <-> (forall k, In k (e_ea e) -> get k h = get k p)).
Proof. split; [apply nm_eng_spec | apply em_eng_spec]. Qed.

Theorem relabel_invariant : vf2b_contract vf2b ->
  forall e r gs gs' i j c c', cache_inv gs c -> cache_inv gs' c' -> gwf (gnth gs i) -> gwf (gnth gs j) ->
    (gnth gs' i = grelabel r (gnth gs i) /\ inj_on r (node_ids (gnth gs i)) /\ gnth gs' j = gnth gs j) \/
    (gnth gs' j = grelabel r (gnth gs j) /\ inj_on r (node_ids (gnth gs j)) /\ gnth gs' i = gnth gs i) ->
    fst (isomorphic vf2b e i (gnth gs' i) j (gnth gs' j) c') = fst (isomorphic vf2b e i (gnth gs i) j (gnth gs j) c).
Proof.
  intros VB e r gs gs' i j c c' Hc Hc' Wi Wj D. rewrite !iso_fst; auto.
  destruct D as [(E1 & Ri & E2)|(E1 & Ri & E2)]; rewrite E1, E2.
  - apply (isomorphic_relabel_1 vf2b VB); auto.
  - apply (isomorphic_relabel_2 vf2b VB); auto.
Qed.

Theorem symmetric : vf2b_contract vf2b ->
  forall e gs i j c c' k, cache_inv gs c -> cache_inv gs c' -> gwf (gnth gs i) -> gwf (gnth gs j) ->
    hc_all k (gnth gs i) -> hc_all k (gnth gs j) ->
    fst (isomorphic vf2b e i (gnth gs i) j (gnth gs j) c) = fst (isomorphic vf2b e j (gnth gs j) i (gnth gs i) c').
Proof.
  intros VB e gs i j c c' k Hc Hc' Wi Wj Hi Hj. rewrite !iso_fst; auto.
  apply (isomorphic_symmetric vf2b VB e k); auto.
Qed.

Theorem embeddings : vf2b_contract vf2b -> enum_contract enum ->
  forall gs e hi pi c, cache_inv gs c -> gwf (gnth gs hi) -> gwf (gnth gs pi) ->
    (forall m, In m (fst (get_mappings vf2b enum e hi (gnth gs hi) pi (gnth gs pi) c)) ->
               mapping_valid true (nm_eng e) (em_eng e) (gnth gs hi) (gnth gs pi) m) /\
    (contained true (nm_eng e) (em_eng e) (gnth gs hi) (gnth gs pi) -> e_mm e <> Some 0%N ->
     fst (get_mappings vf2b enum e hi (gnth gs hi) pi (gnth gs pi) c) <> []).
Proof.
  intros VB EN gs e hi pi c Hc WH WP. rewrite maps_fst; auto. split.
  - intros m I. eapply get_mappings_valid; eauto.
  - intros C Hmm. apply (get_mappings_nonempty vf2b enum VB EN); auto.
Qed.

(** (5) every filter is a necessary condition ... *)
Theorem filters_necessary :
  (forall gs e hi pi c, cache_inv gs c -> gwf (gnth gs hi) -> gwf (gnth gs pi) ->
     contained true (nm_eng e) (em_eng e) (gnth gs hi) (gnth gs pi) ->
     fst (pre_check e hi (gnth gs hi) pi (gnth gs pi) c) = true) /\
  (forall induced nc ec names eattr child parent, gwf child -> gwf parent ->
     contained induced (nm_subc nc names) (em_subc ec eattr) parent child -> sub_filter nc ec names eattr child parent = true).
Proof.
  split.
  - intros gs e hi pi c Hc WH WP C. rewrite pre_fst; auto.
    apply (pre_check_necessary e _ _ _ _ WH WP (nm_eng_respects e) C).
  - intros. eapply sub_filter_necessary; eauto.
Qed.

(** ... hence switching it on or off changes no verdict and no result list *)
Theorem filters_transparent : vf2b_contract vf2b -> enum_contract enum ->
  (forall gs e b i j c c', cache_inv gs c -> cache_inv gs c' -> gwf (gnth gs i) -> gwf (gnth gs j) ->
     fst (isomorphic vf2b (set_wl e b) i (gnth gs i) j (gnth gs j) c') = fst (isomorphic vf2b e i (gnth gs i) j (gnth gs j) c)) /\
  (forall gs e b hi pi c c', cache_inv gs c -> cache_inv gs c' -> gwf (gnth gs hi) -> gwf (gnth gs pi) ->
     fst (get_mappings vf2b enum (set_wl e b) hi (gnth gs hi) pi (gnth gs pi) c') =
     fst (get_mappings vf2b enum e hi (gnth gs hi) pi (gnth gs pi) c)) /\
  (forall induced nc ec names eattr child parent, gwf child -> gwf parent ->
     sub_iso vf2b true induced nc ec names eattr child parent = sub_iso vf2b false induced nc ec names eattr child parent).
Proof.
  intros VB EN. split; [|split].
  - intros gs e b i j c c' Hc Hc' Wi Wj. rewrite !iso_fst; auto.
    apply (isomorphic_filter_transparent vf2b VB); auto.
  - intros gs e b hi pi c c' Hc Hc' WH WP. rewrite !maps_fst; auto.
    apply (get_mappings_filter_transparent vf2b enum EN); auto.
  - intros. apply sub_iso_filter_transparent; auto.
Qed.

End Final.
