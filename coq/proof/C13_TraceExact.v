(** C13 -- the EXACT sequence of isomorphism tests of GraphCluster.iterative_cluster, as a function of the clusters it returns
    (no reference to the isomorphism test itself): for every returned cluster, in order, its first member i is tested against
    every later position j that carries the same normalised attribute and belongs to no EARLIER cluster -- in list order.
    What can be said of a single test (earlier against later position, equal attribute, the earlier one a cluster's first
    member, no pair twice) is read off this specification. *)
From Coq Require Import List ZArith Bool Lia.
From SK Require Import lib.LGraph model.C13_Model model.C13_Trace proof.C13_Proof proof.C13_Trace.
Import ListNotations.
Local Open Scope nat_scope.

Section Exact.
Variable iso : item -> item -> bool.
Variable mode : attr_mode.

(** one row: the representative (i, xi) against the later entries with equal attribute that are not in [vis] *)
Definition row (i : nat) (xi : item) (rest : list (nat * item)) (vis : list nat) : list (nat * nat) :=
  map (fun jx => (i, fst jx))
      (filter (fun jx => zlist_eqb (gc_key mode xi) (gc_key mode (snd jx)) && negb (memb (fst jx) vis)) rest).

Lemma row_ext i xi rest v1 v2 : (forall j, In j (map fst rest) -> memb j v1 = memb j v2) -> row i xi rest v1 = row i xi rest v2.
Proof.
  intros H. unfold row. f_equal. apply filter_ext_in. intros [j xj] I. simpl.
  rewrite (H j); [reflexivity|]. change j with (fst (j, xj)). now apply in_map.
Qed.

(** the entry (i, xi) of [todo] and what follows it *)
Fixpoint after (i : nat) (todo : list (nat * item)) : option (item * list (nat * item)) :=
  match todo with
  | [] => None
  | (k, x) :: r => if Nat.eqb k i then Some (x, r) else after i r
  end.

(** the tests, given the clusters that were created *)
Fixpoint spec_new (todo : list (nat * item)) (visited : list nat) (new : list (list nat)) : list (nat * nat) :=
  match new with
  | [] => []
  | cl :: more =>
      match cl with
      | [] => []
      | i :: _ =>
          match after i todo with
          | Some (xi, rest) => row i xi rest visited ++ spec_new rest (cl ++ visited) more
          | None => []
          end
      end
  end.

Lemma spec_new_ext new : forall todo v1 v2, (forall j, memb j v1 = memb j v2) -> spec_new todo v1 new = spec_new todo v2 new.
Proof.
  induction new as [|cl more IH]; intros todo v1 v2 H; simpl; [reflexivity|].
  destruct cl as [|i tl]; [reflexivity|]. destruct (after i todo) as [[xi rest]|]; [|reflexivity].
  rewrite (row_ext i xi rest v1 v2) by (intros j _; apply H). f_equal. apply IH.
  intros j. unfold memb in *. rewrite !existsb_app. now rewrite H.
Qed.

Lemma row_cons_notin i xi rest k vis : ~ In k (map fst rest) -> row i xi rest (k :: vis) = row i xi rest vis.
Proof. intros Hk. apply row_ext. intros j Hj. apply memb_cons_ne. now intros ->. Qed.

Lemma gc_inner_tr_closed i xi c rest : forall cl vis rc tr, NoDup (map fst rest) ->
  gc_inner_tr iso mode i xi c rest (cl, vis, rc) tr = (gc_inner iso mode xi c rest (cl, vis, rc), tr ++ row i xi rest vis).
Proof.
  induction rest as [|[j xj] r IH]; intros cl vis rc tr Hnd.
  - cbn. now rewrite app_nil_r.
  - inversion Hnd as [|? ? Hj Hnd']; subst. unfold row. cbn [gc_inner_tr gc_inner filter fst snd].
    destruct (zlist_eqb (gc_key mode xi) (gc_key mode xj) && negb (memb j vis)); [|exact (IH _ _ _ _ Hnd')].
    cbn [map fst].
    destruct (iso xi xj); rewrite (IH _ _ _ _ Hnd'), ?(row_cons_notin _ _ _ _ _ Hj), <- app_assoc; reflexivity.
Qed.

Lemma gc_outer_tr_cons i xi rest visited clusters r2c tr : ~ In i (map fst rest) -> NoDup (map fst rest) ->
  gc_outer_tr iso mode ((i, xi) :: rest) visited clusters r2c tr =
  if memb i visited then gc_outer_tr iso mode rest visited clusters r2c tr
  else let js := joined iso mode xi rest visited in
       gc_outer_tr iso mode rest (rev js ++ i :: visited) (clusters ++ [i :: js])
                   (r2c ++ (i, length clusters) :: map (fun j => (j, length clusters)) js) (tr ++ row i xi rest visited).
Proof.
  intros Hi Hnd. cbn [gc_outer_tr]. destruct (memb i visited); [reflexivity|].
  now rewrite (gc_inner_tr_closed _ _ _ _ _ _ _ _ Hnd), (gc_inner_closed _ _ _ _ _ _ _ _ Hnd), (joined_cons_notin _ _ _ _ _ _ Hi),
    (row_cons_notin _ _ _ _ _ Hi), <- app_assoc.
Qed.

Lemma after_skip i k x r : k <> i -> after i ((k, x) :: r) = after i r.
Proof. intros H. simpl. apply Nat.eqb_neq in H. now rewrite H. Qed.

Lemma after_spec i todo xi rest : after i todo = Some (xi, rest) ->
  (exists pre, todo = pre ++ (i, xi) :: rest) /\
  (NoDup (map fst todo) -> ~ In i (map fst rest) /\ NoDup (map fst rest)).
Proof.
  induction todo as [|[k x] r IH]; cbn [after map fst]; [discriminate|]. destruct (Nat.eqb_spec k i) as [->|Hne].
  - intros [= -> ->]. split; [now exists []|]. apply NoDup_cons_iff.
  - intros H. destruct (IH H) as ((pre & ->) & Hnd'). split; [now exists ((k, x) :: pre)|].
    intros Hnd. apply NoDup_cons_iff in Hnd. apply Hnd', Hnd.
Qed.

(** heads of the created clusters are entries of [todo] *)
Definition heads_in (todo : list (nat * item)) (new : list (list nat)) : Prop :=
  forall cl, In cl new -> exists i tl, cl = i :: tl /\ In i (map fst todo).

Lemma heads_in_cons p todo new : heads_in todo new -> heads_in (p :: todo) new.
Proof. intros Hh cl Hcl. destruct (Hh cl Hcl) as (i & tl & E & I). exists i, tl. split; [exact E|now right]. Qed.

Lemma spec_new_skip k x r visited new : ~ In k (map fst r) -> heads_in r new ->
  spec_new ((k, x) :: r) visited new = spec_new r visited new.
Proof.
  intros Hk Hh. destruct new as [|cl more]; [reflexivity|].
  destruct (Hh cl (or_introl eq_refl)) as (i & tl & -> & Hi). cbn [spec_new]. rewrite after_skip; [reflexivity|].
  now intros ->.
Qed.

Lemma gc_outer_tr_exact todo : forall visited clusters r2c tr,
  NoDup (map fst todo) ->
  let res := gc_outer_tr iso mode todo visited clusters r2c tr in
  exists new, fst (fst res) = clusters ++ new /\ heads_in todo new /\ snd res = tr ++ spec_new todo visited new.
Proof.
  induction todo as [|[i xi] rest IH]; intros visited clusters r2c tr Hnd.
  - exists []. cbn. rewrite !app_nil_r. split; [reflexivity|split; [intros cl []|reflexivity]].
  - inversion Hnd as [|? ? Hi Hnd']; subst. cbv zeta. rewrite (gc_outer_tr_cons _ _ _ _ _ _ _ Hi Hnd').
    destruct (memb i visited) eqn:Ev.
    + destruct (IH visited clusters r2c tr Hnd') as (new & Ecl & Hh & Etr). exists new.
      split; [exact Ecl|]. split; [now apply heads_in_cons|]. now rewrite Etr, spec_new_skip.
    + cbv zeta. set (js := joined iso mode xi rest visited).
      destruct (IH (rev js ++ i :: visited) (clusters ++ [i :: js])
                   (r2c ++ (i, length clusters) :: map (fun j => (j, length clusters)) js)
                   (tr ++ row i xi rest visited) Hnd') as (new & Ecl & Hh & Etr).
      exists ((i :: js) :: new). split; [now rewrite Ecl, <- app_assoc|]. split.
      * intros cl [<-|Hcl]; [exists i, js; split; [reflexivity|now left]|]. exact (heads_in_cons _ _ _ Hh cl Hcl).
      * rewrite Etr. cbn [spec_new after]. rewrite Nat.eqb_refl, <- app_assoc. do 2 f_equal.
        apply spec_new_ext. intros k. rewrite !memb_app, memb_rev. unfold memb. cbn [existsb].
        now destruct (existsb (Nat.eqb k) js), (Nat.eqb k i).
Qed.

(** THE EXACT TRACE *)
Theorem gc_trace_exact data :
  snd (gc_iterative_tr iso mode data) = spec_new (enum_from 0 data) [] (fst (fst (gc_iterative_tr iso mode data))).
Proof.
  unfold gc_iterative_tr.
  assert (Hnd : NoDup (map fst (enum_from 0 data))) by (rewrite enum_from_fst; apply seq_NoDup).
  destruct (gc_outer_tr_exact (enum_from 0 data) [] [] [] [] Hnd) as (new & Ecl & _ & Etr).
  rewrite Etr, Ecl. reflexivity.
Qed.

Lemma row_in i xi rest vis p : In p (row i xi rest vis) ->
  fst p = i /\ exists xj, In (snd p, xj) rest /\ gc_key mode xi = gc_key mode xj.
Proof.
  intros H. apply in_map_iff in H. destruct H as ([j xj] & <- & F). apply filter_In in F. destruct F as (I & F).
  apply andb_prop in F. split; [reflexivity|]. exists xj. split; [exact I|]. now apply zlist_eqb_eq.
Qed.

Lemma row_nodup i xi rest vis : NoDup (map fst rest) -> NoDup (row i xi rest vis).
Proof.
  induction rest as [|[j xj] r IH]; intros Hnd; [constructor|]. inversion Hnd as [|? ? Hj Hnd']; subst.
  unfold row. cbn [filter fst snd].
  destruct (zlist_eqb (gc_key mode xi) (gc_key mode xj) && negb (memb j vis)); [|now apply IH].
  constructor; [|now apply IH]. intros H. apply row_in in H. destruct H as (_ & x & I & _). apply Hj. now apply (in_map fst) in I.
Qed.

Lemma spec_new_in new : forall todo vis p, In p (spec_new todo vis new) ->
  (exists cl, In (fst p :: cl) new) /\
  exists xi xj pre rest, todo = pre ++ (fst p, xi) :: rest /\ In (snd p, xj) rest /\ gc_key mode xi = gc_key mode xj.
Proof.
  induction new as [|[|i tl] more IH]; intros todo vis p H; [destruct H..|]. cbn [spec_new] in H.
  destruct (after i todo) as [[xi rest]|] eqn:Ea; [|contradiction].
  apply after_spec in Ea. destruct Ea as ((pre & ->) & _). apply in_app_or in H. destruct H as [H|H].
  - apply row_in in H. destruct H as (<- & xj & I & K). split; [exists tl; now left|]. now exists xi, xj, pre, rest.
  - destruct (IH _ _ _ H) as ((cl & Hcl) & xi' & xj & pre' & rest' & -> & I & K). split; [exists cl; now right|].
    exists xi', xj, (pre ++ (i, xi) :: pre'), rest'. now rewrite <- app_assoc.
Qed.

Lemma spec_new_nodup new : forall todo vis, NoDup (map fst todo) -> NoDup (spec_new todo vis new).
Proof.
  induction new as [|[|i tl] more IH]; intros todo vis Hnd; [constructor..|]. cbn [spec_new].
  destruct (after i todo) as [[xi rest]|] eqn:Ea; [|constructor].
  apply after_spec in Ea. destruct Ea as (_ & Ha). destruct (Ha Hnd) as (Hi & Hnd').
  apply NoDup_app_intro; [now apply row_nodup|now apply IH|].
  (* the later rows belong to later entries *)
  intros p H1 H2. apply row_in in H1. destruct H1 as (<- & _).
  apply spec_new_in in H2. destruct H2 as (_ & x & _ & pre & r & -> & _).
  apply Hi. rewrite map_app. apply in_or_app. right. now left.
Qed.

End Exact.

Lemma enum_from_lt {X} (l : list X) : forall s pre i x rest j y,
  enum_from s l = pre ++ (i, x) :: rest -> In (j, y) rest -> i < j.
Proof.
  induction l as [|a l IH]; intros s [|p pre] i x rest j y E Hj; cbn in E; try discriminate.
  - injection E as <- <- <-. apply enum_from_in in Hj. lia.
  - injection E as _ E. exact (IH _ _ _ _ _ _ _ E Hj).
Qed.

Fixpoint pairs_below (n : nat) : list (nat * nat) :=
  match n with
  | O => []
  | S m => pairs_below m ++ map (fun i => (i, m)) (seq 0 m)
  end.

Lemma pairs_below_in n : forall i j, i < j < n -> In (i, j) (pairs_below n).
Proof.
  induction n as [|m IH]; intros i j H; [lia|]. simpl. apply in_or_app.
  destruct (Nat.eq_dec j m) as [->|Hne].
  - right. apply in_map_iff. exists i. split; [reflexivity|]. apply in_seq. lia.
  - left. apply IH. lia.
Qed.

Lemma pairs_below_length n : 2 * length (pairs_below n) = n * (n - 1).
Proof.
  induction n as [|m IH]; [reflexivity|]. simpl pairs_below. rewrite app_length, map_length, seq_length.
  replace (S m - 1) with m by lia. destruct m as [|k]; [simpl; lia|]. replace (S k - 1) with k in IH by lia. nia.
Qed.

(** every test of iterative_cluster compares an earlier position -- the FIRST member of one of the returned clusters: an item
    is only ever compared with the representative of a class -- with a later one carrying the same normalised attribute; no
    pair of positions is tested twice; hence at most n(n-1)/2 tests *)
Theorem gc_trace_full (iso : item -> item -> bool) (mode : attr_mode) (data : list item) :
  let tr := snd (gc_iterative_tr iso mode data) in
  NoDup tr /\
  (forall i j, In (i, j) tr ->
     i < j < length data /\
     (exists xi xj, nth_error data i = Some xi /\ nth_error data j = Some xj /\ gc_key mode xi = gc_key mode xj) /\
     (exists cl, In (i :: cl) (fst (fst (gc_iterative_tr iso mode data))))) /\
  2 * length tr <= length data * (length data - 1).
Proof.
  intros tr. unfold tr. rewrite gc_trace_exact. set (cls := fst (fst (gc_iterative_tr iso mode data))).
  assert (ND : NoDup (spec_new mode (enum_from 0 data) [] cls)).
  { apply spec_new_nodup. rewrite enum_from_fst. apply seq_NoDup. }
  assert (Q : forall i j, In (i, j) (spec_new mode (enum_from 0 data) [] cls) ->
     i < j < length data /\
     (exists xi xj, nth_error data i = Some xi /\ nth_error data j = Some xj /\ gc_key mode xi = gc_key mode xj) /\
     (exists cl, In (i :: cl) cls)).
  { intros i j H. apply spec_new_in in H. destruct H as (Hcl & xi & xj & pre & rest & E & I & K). cbn [fst snd] in *.
    pose proof (enum_from_lt _ _ _ _ _ _ _ _ E I) as Hlt.
    assert (Ii : In (i, xi) (enum_from 0 data)) by (rewrite E; apply in_or_app; right; now left).
    assert (Ij : In (j, xj) (enum_from 0 data)) by (rewrite E; apply in_or_app; right; now right).
    apply enum_from_in in Ii, Ij. rewrite Nat.sub_0_r in Ii, Ij. destruct Ii as (_ & Ii), Ij as (_ & Ij).
    split; [split; [exact Hlt|apply nth_error_Some; congruence]|]. split; [now exists xi, xj|exact Hcl]. }
  split; [exact ND|split; [exact Q|]].
  assert (LE : length (spec_new mode (enum_from 0 data) [] cls) <= length (pairs_below (length data))).
  { apply NoDup_incl_length; [exact ND|]. intros [i j] H. apply pairs_below_in. exact (proj1 (Q i j H)). }
  pose proof (pairs_below_length (length data)) as PL. lia.
Qed.

Module Example_exact.
Import Example_trace.
Example exact_example :
  spec_new AStr (enum_from 0 pool) [] [[0; 1]; [2]; [3]] = [(0, 1); (0, 2)] /\
  snd (gc_iterative_tr isoE AStr pool) = [(0, 1); (0, 2)].
Proof. split; vm_compute; reflexivity. Qed.
End Example_exact.
