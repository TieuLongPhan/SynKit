(** C19 — the linear-algebra core of "deficiency >= 0" (MathComp style, abstract matrices):
    if every column of S is  Y(:,v_j) - Y(:,u_j)  for an arc (u_j, v_j) of a graph on k vertices, and the vertices carry
    l classes that are constant along arcs and have one representative each, then  rank S + l <= k.
    (S = Y * I_a with I_a the incidence matrix; the l class indicator rows are independent and annihilate I_a.) *)
From mathcomp Require Import ssreflect ssrbool eqtype ssrnat seq fintype bigop ssralg matrix mxalgebra.
From mathcomp Require Import zify.
Set Implicit Arguments. Unset Strict Implicit. Unset Printing Implicit Defensive.
Import GRing.Theory.
Local Open Scope ring_scope.

Section Incidence.
Variable F : fieldType.
Variables (m k r l : nat).
Variable Y : 'M[F]_(m, k).
Variables (uf vf : 'I_r -> 'I_k).
Variable cls : 'I_l -> 'I_k -> bool.
Variable rep : 'I_l -> 'I_k.
Hypothesis cls_arc : forall c j, cls c (uf j) = cls c (vf j).
Hypothesis cls_rep : forall c c', cls c (rep c') = (c == c').

Definition Ia : 'M[F]_(k, r) := \matrix_(c, j) ((c == vf j)%:R - (c == uf j)%:R).
Definition Wm : 'M[F]_(l, k) := \matrix_(c, i) (cls c i)%:R.
Definition Rm : 'M[F]_(k, l) := \matrix_(i, c) (i == rep c)%:R.

Lemma sum_delta (f : 'I_k -> F) x : \sum_i f i * (i == x)%:R = f x.
Proof.
rewrite (bigD1 x) //= eqxx mulr1 big1 ?addr0 // => i /negbTE ->.
by rewrite mulr0.
Qed.

Lemma Y_Ia : Y *m Ia = \matrix_(i, j) (Y i (vf j) - Y i (uf j)).
Proof.
apply/matrixP => i j; rewrite !mxE.
under eq_bigr => c _ do rewrite !mxE mulrBr.
by rewrite sumrB !sum_delta.
Qed.

Lemma W_Ia : Wm *m Ia = 0.
Proof.
apply/matrixP => c j; rewrite !mxE.
under eq_bigr => i _ do rewrite !mxE mulrBr.
by rewrite sumrB !sum_delta cls_arc subrr.
Qed.

Lemma W_R : Wm *m Rm = 1%:M.
Proof.
apply/matrixP => c c'; rewrite !mxE.
under eq_bigr => i _ do rewrite !mxE.
by rewrite sum_delta cls_rep.
Qed.

Lemma rank_W : \rank Wm = l.
Proof.
apply/eqP; rewrite eqn_leq rank_leq_row /=.
have H : (\rank (Wm *m Rm) <= \rank Wm)%N := mxrankM_maxl _ _.
by rewrite W_R mxrank1 in H.
Qed.

Lemma rank_Ia : (\rank Ia + l <= k)%N.
Proof.
have sub : (Wm <= kermx Ia)%MS by apply/sub_kermxP; exact: W_Ia.
have := mxrankS sub; rewrite rank_W mxrank_ker.
have := rank_leq_row Ia.
lia.
Qed.

Theorem rank_complex_bound (S : 'M[F]_(m, r)) :
  (forall i j, S i j = Y i (vf j) - Y i (uf j)) -> (\rank S + l <= k)%N.
Proof.
move=> eS.
have -> : S = Y *m Ia by rewrite Y_Ia; apply/matrixP => i j; rewrite eS mxE.
have := mxrankM_maxr Y Ia; have := rank_Ia; lia.
Qed.
End Incidence.
Print Assumptions rank_complex_bound.

(** columns spread over blocks: if every column of S is zero or a row of one of the matrices D c, then
    rank S <= sum of the ranks of the D c *)
Section Blocks.
Variable F : fieldType.
Variables (m r l : nat).
Variable S : 'M[F]_(m, r).
Variable d : 'I_l -> nat.
Variable D : forall c : 'I_l, 'M[F]_(d c, m).
Hypothesis cols : forall j : 'I_r,
  (forall i, S i j = 0) \/ exists c : 'I_l, exists t : 'I_(d c), forall i, S i j = D c t i.

Lemma rank_sums_leq (A : 'I_l -> 'M[F]_m) : (\rank (\sum_c A c)%MS <= \sum_c \rank (A c))%N.
Proof.
elim/big_ind2: _ => [|A1 a1 A2 a2 H1 H2|c _]; rewrite ?mxrank0 //.
by apply: leq_trans (mxrank_adds_leqif _ _) _; apply: leq_add.
Qed.

Theorem rank_blocks : (\rank S <= \sum_c \rank (D c))%N.
Proof.
rewrite -mxrank_tr.
have sub : (S^T <= \sum_c <<D c>>)%MS.
  apply/row_subP => j; case: (cols j) => [z|[c [t e]]].
    have -> : row j S^T = 0 by apply/rowP => i; rewrite !mxE z.
    exact: sub0mx.
  have -> : row j S^T = row t (D c) by apply/rowP => i; rewrite !mxE e.
  apply: (submx_trans (row_sub t (D c))).
  by apply: (sumsmx_sup c) => //; rewrite genmxE.
apply: leq_trans (mxrankS sub) _.
apply: leq_trans (rank_sums_leq _) _.
by apply: leq_sum => c _; rewrite genmxE.
Qed.
End Blocks.
Print Assumptions rank_blocks.
