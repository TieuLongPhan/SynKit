(** C01 — renumbering the atom maps of a reaction commutes with the string half of the model *)
From Coq Require Import List NArith ZArith Bool Arith.
From SK Require Import lib.LGraph lib.C01_GraphLemmas model.C01_Model model.C02_Model model.C01_String model.C01_Renum
  proof.C01_OptsProof proof.C01_Proof proof.C01_StringProof proof.C01_StringPipe.
Import ListNotations.
Local Open Scope Z_scope.

Section Renum.
Variable f : N -> N.
Hypothesis Hinj : forall a b, f a = f b -> a = b.
Hypothesis Hnz : forall a, a <> 0%N -> f a <> 0%N.

Lemma is_mapped_renum a : is_mapped (renum_atom f a) = is_mapped a.
Proof.
  unfold is_mapped, renum_atom. cbn [ra_map]. destruct (N.eqb_spec (ra_map a) 0) as [E|E]; [reflexivity|].
  destruct (N.eqb_spec (f (ra_map a)) 0) as [F|F]; [exfalso; exact (Hnz _ E F)|reflexivity].
Qed.

Lemma ra_map_renum a : is_mapped a = true -> ra_map (renum_atom f a) = f (ra_map a).
Proof. unfold is_mapped, renum_atom. cbn [ra_map]. destruct (N.eqb (ra_map a) 0); [discriminate|reflexivity]. Qed.

Definition renode (p : N * gnode) : N * gnode :=
  (f (fst p), let a := snd p in GN (g_el a) (g_arom a) (g_hc a) (g_ch a) (g_nb a) (Z.of_N (f (fst p)))).

Lemma mapped_nodes_renum (m : rmol) : mapped_nodes (renum_mol f m) = map renode (mapped_nodes m).
Proof.
  unfold mapped_nodes, renum_mol. cbn [rm_atoms]. induction (rm_atoms m) as [|a l IH]; [reflexivity|].
  cbn [map flat_map]. rewrite is_mapped_renum, IH, map_app. f_equal.
  destruct (is_mapped a) eqn:M; [|reflexivity]. cbn [map]. unfold renode. cbn [fst snd].
  rewrite (ra_map_renum a M). unfold atom_node. rewrite (ra_map_renum a M). reflexivity.
Qed.

Lemma enumerate_map {X Y} (g : X -> Y) (l : list X) :
  enumerate (map g l) = map (fun q => (fst q, g (snd q))) (enumerate l).
Proof.
  unfold enumerate. rewrite map_length. generalize 0%nat. induction l as [|x l IH]; intros s; [reflexivity|].
  cbn [length seq combine map]. rewrite IH. reflexivity.
Qed.

Lemma mapped_ix_renum (m : rmol) : mapped_ix (renum_mol f m) = map (fun q => (fst q, f (snd q))) (mapped_ix m).
Proof.
  unfold mapped_ix, renum_mol. cbn [rm_atoms]. rewrite enumerate_map.
  induction (enumerate (rm_atoms m)) as [|[i a] l IH]; [reflexivity|].
  cbn [map flat_map fst snd]. rewrite is_mapped_renum, IH, map_app. f_equal.
  destruct (is_mapped a) eqn:M; [|reflexivity]. cbn [map fst snd]. rewrite (ra_map_renum a M). reflexivity.
Qed.

Lemma lookup_idx_map i (ix : list (nat * N)) :
  lookup_idx i (map (fun q => (fst q, f (snd q))) ix) = option_map f (lookup_idx i ix).
Proof.
  induction ix as [|[j n] r IH]; [reflexivity|]. cbn [map lookup_idx fst snd]. destruct (Nat.eqb i j); [reflexivity|exact IH].
Qed.

Lemma mapped_bonds_renum (m : rmol) :
  mapped_bonds (renum_mol f m) = map (fun e : N * N * Z => let '(a, b, x) := e in (f a, f b, x)) (mapped_bonds m).
Proof.
  unfold mapped_bonds. rewrite mapped_ix_renum. cbn [renum_mol rm_bonds].
  induction (rm_bonds m) as [|[[i j] o] l IH]; [reflexivity|].
  cbn [flat_map fst snd]. rewrite !lookup_idx_map, IH, map_app. f_equal.
  destruct (lookup_idx i (mapped_ix m)); [|reflexivity]. destruct (lookup_idx j (mapped_ix m)); reflexivity.
Qed.

(** the molecule graph of the renumbered molecule is the renumbered molecule graph (atom_map follows the node id) *)
Theorem graph_of_renum (m : rmol) : graph_of (renum_mol f m) = set_amap (relabel f (graph_of m)).
Proof.
  unfold graph_of, set_amap, relabel. cbn [gnodes gedges]. rewrite mapped_nodes_renum, mapped_bonds_renum. f_equal.
  rewrite map_map. apply map_ext. intros [n a]. reflexivity.
Qed.

(** ITSGraph only reads atom_map to copy it: on graphs whose atom_map is the node id it yields an ITS with the same *)
Lemma label_set_amap (g : mgraph) n :
  label (set_amap g) n = option_map (fun a => GN (g_el a) (g_arom a) (g_hc a) (g_ch a) (g_nb a) (Z.of_N n)) (label g n).
Proof.
  unfold label, set_amap. cbn [gnodes].
  apply (assoc_map_val (fun k (a : gnode) => GN (g_el a) (g_arom a) (g_hc a) (g_ch a) (g_nb a) (Z.of_N k))).
Qed.

Lemma side_tuple_set_amap (g : mgraph) n : side_tuple (set_amap g) n = side_tuple g n.
Proof. unfold side_tuple. rewrite label_set_amap. destruct (label g n); reflexivity. Qed.

Lemma has_node_set_amap (g : mgraph) n : has_node (set_amap g) n = has_node g n.
Proof. unfold has_node. rewrite label_set_amap. destruct (label g n); reflexivity. Qed.

Lemma construct_set_amap (G H : mgraph) : its_construct (set_amap G) (set_amap H) = set_iamap (its_construct G H).
Proof.
  unfold its_construct, set_iamap. cbn [gnodes gedges].
  assert (base_is_G (set_amap G) (set_amap H) = base_is_G G H) as ->
    by (unfold base_is_G, set_amap; cbn [gnodes]; rewrite !map_length; reflexivity).
  f_equal.
  assert (forall X Y : mgraph,
      map (fun p => (fst p, its_node (set_amap G) (set_amap H) (fst p) (g_amap (snd p))))
          (gnodes (set_amap X) ++ filter (fun p => negb (has_node (set_amap X) (fst p))) (gnodes (set_amap Y))) =
      map (fun p => (fst p, let a := snd p in IN (i_el a) (i_ch a) (Z.of_N (fst p)) (i_extra a) (i_G a) (i_H a)))
          (map (fun p => (fst p, its_node G H (fst p) (g_amap (snd p))))
               (gnodes X ++ filter (fun p => negb (has_node X (fst p))) (gnodes Y)))) as E.
    { intros X Y.
      set (sa := fun p : N * gnode => (fst p, let a := snd p in GN (g_el a) (g_arom a) (g_hc a) (g_ch a) (g_nb a) (Z.of_N (fst p)))).
      change (gnodes (set_amap X)) with (map sa (gnodes X)). change (gnodes (set_amap Y)) with (map sa (gnodes Y)).
      rewrite (filter_map_comm sa (fun p => negb (has_node X (fst p)))).
      - rewrite <- map_app, !map_map. apply map_ext. intros [k a]. cbn [fst snd sa].
        unfold its_node. rewrite !side_tuple_set_amap. reflexivity.
      - intros [k a]. cbn [fst snd sa]. rewrite has_node_set_amap. reflexivity. }
  destruct (base_is_G G H); apply E.
Qed.
End Renum.

(** C01_renumber: renumbering the atom maps of both sides of a reaction by an injective map (non-zero maps stay non-zero)
    yields the renumbered ITS *)
Theorem renumber (f : N -> N) : (forall a b, f a = f b -> a = b) -> (forall a, a <> 0%N -> f a <> 0%N) ->
  forall mr mp : rmol,
  graph_of (renum_mol f mr) = set_amap (relabel f (graph_of mr)) /\
  its_construct (graph_of (renum_mol f mr)) (graph_of (renum_mol f mp)) =
    set_iamap (relabel f (its_construct (graph_of mr) (graph_of mp))).
Proof.
  intros Hinj Hnz mr mp. split; [apply graph_of_renum; assumption|].
  rewrite !(graph_of_renum f Hnz), construct_set_amap, (construct_equivariant f Hinj). reflexivity.
Qed.

(** non-vacuity: shifting the maps of CH3Br + OH- by 10 *)
Example C01_renumber_nonvacuous :
  node_ids (graph_of (renum_mol (N.add 10) C01_StringPipe.ex_mr)) = [11; 12; 13]%N /\
  length (rm_atoms (renum_mol (N.add 10) C01_StringPipe.ex_mr)) = 4%nat /\
  node_ids (its_construct (graph_of (renum_mol (N.add 10) C01_StringPipe.ex_mr)) (graph_of (renum_mol (N.add 10) C01_StringPipe.ex_mp))) = [11; 12; 13]%N /\
  option_map i_amap (label (its_construct (graph_of (renum_mol (N.add 10) C01_StringPipe.ex_mr)) (graph_of (renum_mol (N.add 10) C01_StringPipe.ex_mp))) 12%N) = Some 12.
Proof. repeat split. Qed.
