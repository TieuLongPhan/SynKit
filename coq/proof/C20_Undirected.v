(** C20 — undirected bipartite inputs: _as_bipartite orients every incidence by its role, so the graph the
    siphon / trap code works on is exactly the directed export, and the siphon / trap theorems apply to it unchanged. *)
From Coq Require Import ZArith List Bool Lia.
Import ListNotations.
From SK Require Import model.C20_Model proof.C20_Spec proof.C20_Siphon.
Local Open Scope nat_scope.

Lemma rx_node_in n L j : j < L -> existsb (Nat.eqb (rx_node n j)) (map (rx_node n) (seq 0 L)) = true.
Proof. intros H. apply (mem_spec (rx_node n j)), in_map, in_seq. lia. Qed.

Lemma sp_node_notin n L i : i < n -> existsb (Nat.eqb (sp_node i)) (map (rx_node n) (seq 0 L)) = false.
Proof.
  intros H. apply not_true_is_false. intros E. apply (mem_spec (sp_node i)), in_map_iff in E as (j & Ej & _).
  unfold sp_node, rx_node in Ej. lia.
Qed.

Lemma orient_flip_arc n rs a :
  wf_net n rs -> In a (arcs_from n 0 rs) ->
  orient_arc (map (rx_node n) (seq 0 (length rs))) (flip a) = a.
Proof.
  intros Hwf Ha. apply in_arcs_from in Ha. destruct Ha as (k & r & Hk & Ha). simpl in Ha.
  assert (Hlt : k < length rs) by (apply nth_error_Some; congruence).
  assert (Hr : In r rs) by (eapply nth_error_In; eauto).
  apply in_arcs_of_rxn in Ha. destruct Ha as ([|] & [i c] & Hi & ->); unfold orient_arc, flip; cbn [role_arc fst snd a_src a_dst a_role a_stoich].
  - rewrite (rx_node_in n (length rs) k Hlt). reflexivity.
  - rewrite (sp_node_notin n (length rs) i (wf_side n rs Hwf Product r (i, c) Hr Hi)). reflexivity.
Qed.

Lemma main_undirected_input :
  forall (n : nat) (rs : list rxn), wf_net n rs ->
  orient_undirected (undirected_view (bipartite_of n rs)) = bipartite_of n rs.
Proof.
  intros n rs Hwf. unfold orient_undirected, undirected_view, bipartite_of. simpl. f_equal.
  rewrite map_map. rewrite <- (map_id (arcs_from n 0 rs)) at 2. apply map_ext_in.
  intros a Ha. apply orient_flip_arc; assumption.
Qed.

(** Non-vacuity: A + B -> C stored as an undirected graph (all edges reversed) is oriented back to the export *)
Example ex_undirected :
  orient_undirected (undirected_view (bipartite_of 3 [([(0, 1%Z); (1, 1%Z)], [(2, 1%Z)])])) =
  bipartite_of 3 [([(0, 1%Z); (1, 1%Z)], [(2, 1%Z)])] /\
  g_arcs (undirected_view (bipartite_of 3 [([(0, 1%Z); (1, 1%Z)], [(2, 1%Z)])])) <>
  g_arcs (bipartite_of 3 [([(0, 1%Z); (1, 1%Z)], [(2, 1%Z)])]).
Proof. split; [vm_compute; reflexivity|vm_compute; discriminate]. Qed.
