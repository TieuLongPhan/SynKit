(** C09 — presentations up to node order AND bond order / bond orientation.

    The parser lists atoms and bonds in the order of the input string, so two strings of the same mapped reaction give
    graphs that differ by a renaming of the ids, a permutation of the node list, a permutation of the edge list and the
    orientation of every edge.  [same_graph] is that relation (for equal ids); [presents p G G'] says that the parsed
    graph G' (atom_map = node id) is the graph G renamed by p.  The results of proof/C09_Indep.v (which keep the edge
    list fixed) are generalised to it. *)
From Coq Require Import List NArith ZArith Bool Arith Lia Permutation.
From SK Require Import lib.LGraph lib.C01_GraphLemmas model.C01_Model model.C09_Model
  proof.C09_Lists proof.C09_Canon proof.C09_Equiv proof.C09_Main proof.C09_Indep.
From SK Require model.C08_Model.
Import ListNotations.

Definition nflip (e : N * N * Z) : N * N * Z := let '(u, v, o) := e in (N.min u v, N.max u v, o).
Definition same_graph (X Y : mgraph) : Prop :=
  Permutation (gnodes X) (gnodes Y) /\ Permutation (map nflip (gedges X)) (map nflip (gedges Y)).
Definition presents (p : N -> N) (G G' : mgraph) : Prop := same_graph G' (set_amap (relabel p G)).

Lemma sg_refl X : same_graph X X.
Proof. split; apply Permutation_refl. Qed.
Lemma sg_sym X Y : same_graph X Y -> same_graph Y X.
Proof. intros (A & B). split; apply Permutation_sym; assumption. Qed.
Lemma sg_trans X Y Z : same_graph X Y -> same_graph Y Z -> same_graph X Z.
Proof. intros (A & B) (C & D). split; eapply Permutation_trans; eauto. Qed.
Lemma suo_sg X Y : same_upto_order X Y -> same_graph X Y.
Proof. intros (A & B). split; [exact A|rewrite B; apply Permutation_refl]. Qed.
Lemma sg_set_amap X Y : same_graph X Y -> same_graph (set_amap X) (set_amap Y).
Proof. intros (A & B). split; [unfold set_amap; simpl; apply Permutation_map; exact A|exact B]. Qed.

Definition rn (f : N -> N) (e : N * N * Z) : N * N * Z := let '(a, b, x) := e in (f a, f b, x).
Lemma nflip_rn f e : nflip (rn f (nflip e)) = nflip (rn f e).
Proof.
  destruct e as [[a b] x]. unfold nflip, rn.
  destruct (N.le_gt_cases a b) as [Hle|Hgt].
  - rewrite (N.min_l a b Hle), (N.max_r a b Hle). reflexivity.
  - rewrite (N.min_r a b), (N.max_l a b) by lia. rewrite (N.min_comm (f b)), (N.max_comm (f b)). reflexivity.
Qed.
Lemma sg_relabel f X Y : same_graph X Y -> same_graph (relabel f X) (relabel f Y).
Proof.
  intros (A & B). split; unfold relabel; simpl; [apply Permutation_map; exact A|].
  change (fun e : N * N * Z => let '(a, b, x) := e in (f a, f b, x)) with (rn f).
  assert (E : forall es, map nflip (map (rn f) es) = map (fun e => nflip (rn f e)) (map nflip es)).
  { intros es. rewrite !map_map. apply map_ext. intros e. symmetry. apply nflip_rn. }
  rewrite !E. apply Permutation_map. exact B.
Qed.

Lemma sg_node_ids X Y : same_graph X Y -> Permutation (node_ids X) (node_ids Y).
Proof. intros (A & _). unfold node_ids. apply Permutation_map. exact A. Qed.
Lemma presents_node_ids p G G' : presents p G G' -> Permutation (node_ids G') (map p (node_ids G)).
Proof. intros S. apply sg_node_ids in S. rewrite node_ids_set_amap in S. unfold relabel, node_ids in *. simpl in S. rewrite map_map in S. rewrite map_map. exact S. Qed.

Lemma presents_in p G G' : presents p G G' -> forall x, In x (node_ids G') <-> In x (map p (node_ids G)).
Proof.
  intros R x. pose proof (presents_node_ids p G G' R) as P.
  split; intros I; [eapply Permutation_in; eauto|eapply Permutation_in; [apply Permutation_sym|]; eauto].
Qed.

(** a presentation in the sense of C09_Indep (edge list kept) is a presentation *)
Lemma relabelled_presents p G G2' : relabelled_by p G G2' -> presents p G (set_amap G2').
Proof. intros R. apply suo_sg. apply suo_set_amap. exact R. Qed.

Lemma chain' (f1 f2 p : N -> N) (Z X' X'' : mgraph) : wf Z ->
  presents p Z X' -> relabelled_by f2 X' X'' -> (forall n, In n (node_ids Z) -> f2 (p n) = f1 n) ->
  same_graph (set_amap X'') (set_amap (relabel f1 Z)).
Proof.
  intros WZ R1 R2 Hf.
  eapply sg_trans; [apply suo_sg; apply suo_set_amap; exact R2|].
  eapply sg_trans; [apply sg_set_amap; apply sg_relabel; exact R1|].
  rewrite set_amap_relabel_set_amap, relabel_relabel.
  rewrite (relabel_agree (fun n => f2 (p n)) f1 Z WZ Hf). apply sg_refl.
Qed.

(** C09_Indep.presentation_independent_gen for presentations up to bond order / orientation *)
Theorem presentation_independent_sg (G H G' H' Gc1 Gc2 : mgraph) (order1 order2 : list N) (p : N -> N) :
  parsed G -> parsed H -> shares_atom G H ->
  (forall a b, p a = p b -> a = b) ->
  parsed G' -> parsed H' -> presents p G G' -> presents p H H' ->
  enumerates order1 G -> relabelled_by (sigma_of order1) G Gc1 ->
  enumerates order2 G' -> relabelled_by (sigma_of order2) G' Gc2 ->
  (forall n, In n (node_ids G) -> sigma_of order2 (p n) = sigma_of order1 n) ->
  nsorted (map p (extra_nodes H (aam_pairs Gc1 H))) ->
  exists (pairs1 pairs2 : list (N * N)) (Hc1 Hc2 : mgraph),
    canonicalise_with Gc1 H = Some (set_amap Gc1, pairs1, set_amap Hc1) /\
    canonicalise_with Gc2 H' = Some (set_amap Gc2, pairs2, set_amap Hc2) /\
    same_graph (set_amap Gc2) (set_amap Gc1) /\ same_graph (set_amap Hc2) (set_amap Hc1).
Proof.
  intros PG PH Hs Pinj PG2 PH2 RG2 RH2 En1 R1 En2 R2 Inv Hsorted. pose proof PG as (WG & _). pose proof PH as (WH & _).
  destruct (canon_pair G H G' H' Gc1 Gc2 order1 order2 p PG PH Hs Pinj PG2 PH2 (presents_in p G G' RG2) (presents_in p H H' RH2)
              En1 R1 En2 R2 Inv Hsorted) as (f1 & f2 & E1 & E2 & RF1 & RF2 & Hf).
  exists (aam_pairs Gc1 H), (aam_pairs Gc2 H'), (relabel f1 H), (relabel f2 H').
  split; [exact E1|]. split; [exact E2|]. split.
  - eapply sg_trans; [apply (chain' f1 f2 p G G' Gc2 WG RG2 RF2); intros n I; apply Hf; auto|].
    apply sg_sym. apply suo_sg. apply suo_set_amap. exact RF1.
  - apply (chain' f1 f2 p H H' _ WH RH2 (relabelled_exact _ _)). intros n I. apply Hf. auto.
Qed.

Theorem presentation_independent_sg_mono (G H G' H' Gc1 Gc2 : mgraph) (order1 order2 : list N) (p : N -> N) :
  parsed G -> parsed H -> shares_atom G H ->
  (forall a b, p a = p b -> a = b) ->
  keeps_extra_order p G H ->
  parsed G' -> parsed H' -> presents p G G' -> presents p H H' ->
  enumerates order1 G -> relabelled_by (sigma_of order1) G Gc1 ->
  enumerates order2 G' -> relabelled_by (sigma_of order2) G' Gc2 ->
  (forall n, In n (node_ids G) -> sigma_of order2 (p n) = sigma_of order1 n) ->
  exists (pairs1 pairs2 : list (N * N)) (Gc1' Gc2' Hc1' Hc2' : mgraph),
    canonicalise_with Gc1 H = Some (Gc1', pairs1, Hc1') /\ canonicalise_with Gc2 H' = Some (Gc2', pairs2, Hc2') /\
    same_graph Gc2' Gc1' /\ same_graph Hc2' Hc1'.
Proof.
  intros PG PH Hs Pinj Pmono PG2 PH2 RG2 RH2 En1 R1 En2 R2 Inv.
  destruct (presentation_independent_sg G H G' H' Gc1 Gc2 order1 order2 p PG PH Hs Pinj PG2 PH2 RG2 RH2 En1 R1 En2 R2 Inv
              (extras_sorted_mono G H Gc1 order1 p PG PH R1 Pmono)) as (pairs1 & pairs2 & Hc1 & Hc2 & E).
  exists pairs1, pairs2, (set_amap Gc1), (set_amap Gc2), (set_amap Hc1), (set_amap Hc2). exact E.
Qed.

(** fixed point for EVERY presentation (G', H') of the canonical graphs (the re-parsed canonical string), given the graph
    canonicaliser gives the atom f1 n of G' the canonical id of n *)
Theorem fixed_point_sg (G H Gc1 : mgraph) (order1 : list N) :
  parsed G -> parsed H -> shares_atom G H ->
  enumerates order1 G -> relabelled_by (sigma_of order1) G Gc1 ->
  exists (pairs1 : list (N * N)) (Gc1' Hc1' : mgraph) (f1 : N -> N),
    canonicalise_with Gc1 H = Some (Gc1', pairs1, Hc1') /\
    (forall a b, f1 a = f1 b -> a = b) /\ (forall n, In n (node_ids G) -> f1 n = sigma_of order1 n) /\
    forall (G' H' : mgraph), parsed G' -> parsed H' -> same_graph G' Gc1' -> same_graph H' Hc1' ->
      presents f1 G G' /\
      forall (order2 : list N) (Gc2 : mgraph),
      enumerates order2 G' -> relabelled_by (sigma_of order2) G' Gc2 ->
      (forall n, In n (node_ids G) -> sigma_of order2 (f1 n) = sigma_of order1 n) ->
      exists (pairs2 : list (N * N)) (Gc2' Hc2' : mgraph),
        canonicalise_with Gc2 H' = Some (Gc2', pairs2, Hc2') /\ Gc2' = set_amap Gc2 /\
        same_graph Gc2' Gc1' /\ same_graph Hc2' Hc1'.
Proof.
  intros PG PH Hs En1 R1.
  destruct (first_run G H Gc1 order1 PG PH Hs En1 R1) as (f1 & E1 & Finj & _ & Fs & RF1 & Fsorted).
  exists (aam_pairs Gc1 H), (set_amap Gc1), (set_amap (relabel f1 H)), f1. split; [exact E1|].
  split; [exact Finj|]. split; [exact Fs|].
  intros G' H' PG2 PH2 SG SH.
  assert (RG2 : presents f1 G G').
  { eapply sg_trans; [exact SG|]. apply suo_sg. apply suo_set_amap. exact RF1. }
  split; [exact RG2|].
  intros order2 Gc2 En2 R2 Inv.
  destruct (presentation_independent_sg G H G' H' Gc1 Gc2 order1 order2 f1 PG PH Hs Finj PG2 PH2 RG2 SH En1 R1 En2 R2 Inv Fsorted)
    as (pairs1 & pairs2 & Hc1' & Hc2 & E1' & E2 & S1 & S2).
  assert (Ec : set_amap (relabel f1 H) = set_amap Hc1') by congruence.
  exists pairs2, (set_amap Gc2), (set_amap Hc2). split; [exact E2|]. split; [reflexivity|]. split; [exact S1|]. rewrite Ec. exact S2.
Qed.
