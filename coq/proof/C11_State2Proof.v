(** C11 (round 5) — AutoEst's cached orbit index (model/C11_State2.v).  Stdlib lists. *)
From Coq Require Import List NArith.
From SK Require Import lib.LGraph model.C11_Model model.C11_State2.
Import ListNotations.

Theorem est_index_state (fn : nlab -> N) (fe : elab -> N) (k : nat) :
  (* before the first fit: RuntimeError, whatever the graph *)
  (forall g, fst (s_orbit_index (s_new g)) = None) /\
  (* after a fit: the index of the colouring of the CURRENT graph, whatever was cached before *)
  (forall o, fst (s_orbit_index (s_fit fn fe k o)) = Some (build_index (wl fn fe (s_graph o) k))) /\
  (* reading twice gives the same answer and leaves the object unchanged the second time *)
  (forall o, let '(i, o') := s_orbit_index o in s_orbit_index o' = (i, o')) /\
  (* an in-place edit without a new fit does not change the answer (stale by design) *)
  (forall o g', fst (s_orbit_index (s_edit g' o)) = fst (s_orbit_index o)) /\
  (* the whole history: stale = the previous fresh answer (None at the start), fresh = the index for the current value *)
  (forall gs o prev, fst (s_orbit_index o) = prev ->
     index_history fn fe k o gs =
     (fix go (p : option index_t) (l : list graph) :=
        match l with
        | [] => []
        | g :: r => let f := Some (build_index (wl fn fe g k)) in (p, f, f) :: go f r
        end) prev gs).
Proof.
  split; [reflexivity|]. split; [reflexivity|]. split.
  - intros [g [cs|] [i|]]; reflexivity.
  - split; [intros [g [cs|] [i|]] g'; reflexivity|].
    induction gs as [|g r IH]; intros o prev Hprev; [reflexivity|].
    cbn [index_history].
    assert (E1 : fst (s_orbit_index (s_edit g o)) = prev) by (destruct o as [g0 [cs|] [i|]]; exact Hprev).
    destruct (s_orbit_index (s_edit g o)) as [stale o1] eqn:Eo1. simpl in E1. subst stale.
    assert (Hg1 : s_graph o1 = g).
    { destruct o as [g0 [cs|] [i|]]; unfold s_orbit_index, s_edit in Eo1; simpl in Eo1; inversion Eo1; reflexivity. }
    unfold s_fit. rewrite Hg1. cbn [s_orbit_index s_cols s_index s_graph].
    f_equal. apply IH. reflexivity.
Qed.

Example ex_index_history :
  let g1 := LG [(1, (0, 0, 0)); (2, (0, 0, 0)); (3, (0, 0, 0))]%N [(1, 2, (0, 0)); (2, 3, (0, 0))]%N in
  let g2 := LG [(1, (1, 1, 1)); (2, (0, 0, 0)); (3, (0, 0, 0))]%N [(1, 2, (0, 0)); (2, 3, (0, 0))]%N in
  index_history n_exact e_order 10 (s_new g1) [g1; g2] =
  [ (None, Some [(1, Some 1); (2, Some 0); (3, Some 1)], Some [(1, Some 1); (2, Some 0); (3, Some 1)]);
    (Some [(1, Some 1); (2, Some 0); (3, Some 1)], Some [(1, Some 0); (2, Some 1); (3, Some 2)],
     Some [(1, Some 0); (2, Some 1); (3, Some 2)]) ]%N.
Proof. vm_compute. reflexivity. Qed.
