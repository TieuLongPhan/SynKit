(** C03 — capstone: every graph its_list returns is a genuine instance of the rule.

    [spec_its inp] is what the property its_list returns whatever was read before (C03_reads_stable).  For every graph g in
    it there are a base graph hb (the substrate, or the substrate with some implicit hydrogens made explicit), a valid match
    m of the rule on hb and the glued graph T = glue hb rc m such that g = T (explicit_h off) or g = _explicit_h(T), and
      (a) the reactant side of g has the SUBSTRATE's element counts, charge and, between substrate atoms, bonds,
      (b) a balanced rule gives a balanced reaction,
      (c) the changed bonds of T are exactly the images of the rule's changed bonds (equal order changes), and g has in
          addition only the bonds of the re-materialised hydrogens, each inside one hydrogen-transfer group. *)
From Coq Require Import List NArith ZArith Bool Permutation.
From SK Require Import lib.Tok lib.LGraph model.C03_Model model.C03_Order model.C03_Reactor proof.C03_Proof proof.C03_Glue
                       proof.C03_ExplicitH proof.C03_ExplicitShape proof.C03_Expand proof.C03_Iso proof.C03_Wiring proof.C03_Ord
                       proof.C03_ReactorProof proof.C03_ReactorSpec proof.C03_Link.
From SK Require Import proof.C03_DefaultEnd.
Import ListNotations.
Local Open Scope Z_scope.

(** * where the graphs of the list come from *)
Lemma zip_pad_in {A B} (d : B) (l : list A) : forall (t : list B) a b, In (a, b) (zip_pad d l t) -> In a l.
Proof.
  induction l as [|x r IH]; intros t a b I; [destruct I|]. cbn [zip_pad] in I. destruct I as [I|I].
  - inversion I; subst. left. reflexivity.
  - right. exact (IH _ _ _ I).
Qed.

Lemma glue_call_in flag host rc ct T tbl : In (T, tbl) (glue_call flag host rc ct) ->
  exists hb x, glue hb rc x = Some T /\
    ((flag = false /\ hb = host /\ x = fst (fst ct)) \/
     (flag = true /\ exists rs, snd (fst ct) = Some rs /\ In x rs /\ hb = h_to_explicit host (map snd (fst (fst ct))))).
Proof.
  unfold glue_call. destruct flag.
  - destruct (snd (fst ct)) as [rs|] eqn:Er.
    + intros I. apply in_flat_map in I. destruct I as ([x tb] & Ix & Ig). cbn [fst snd] in Ig.
      destruct (glue (h_to_explicit host (map snd (fst (fst ct)))) rc x) as [g|] eqn:Eg; [|destruct Ig].
      destruct Ig as [Ig|[]]. inversion Ig; subst. exists (h_to_explicit host (map snd (fst (fst ct)))), x.
      split; [exact Eg|]. right. split; [reflexivity|]. exists rs. split; [reflexivity|]. split; [exact (zip_pad_in _ _ _ _ _ Ix)|reflexivity].
    + cbn [zip_pad flat_map]. intros [].
  - intros I. apply in_flat_map in I. destruct I as ([x tb] & Ix & Ig). cbn [fst snd] in Ig.
    destruct (glue host rc x) as [g|] eqn:Eg; [|destruct Ig]. destruct Ig as [Ig|[]]. inversion Ig; subst.
    cbn [zip_pad] in Ix. destruct Ix as [Ix|[]]. inversion Ix; subst.
    exists host, (fst (fst ct)). split; [exact Eg|]. left. auto.
Qed.

Lemma glue_all_in flag host rc calls tbls T tbl : In (T, tbl) (glue_all flag host rc calls tbls) ->
  exists c hb x, In c calls /\ glue hb rc x = Some T /\
    ((flag = false /\ hb = host /\ x = fst c) \/
     (flag = true /\ exists rs, snd c = Some rs /\ In x rs /\ hb = h_to_explicit host (map snd (fst c)))).
Proof.
  unfold glue_all. intros I. apply in_flat_map in I. destruct I as ([c t] & Ic & Ig).
  destruct (glue_call_in flag host rc (c, t) T tbl Ig) as (hb & x & Eg & R). cbn [fst] in R.
  exists c, hb, x. split; [exact (zip_pad_in _ _ _ _ _ Ic)|]. split; [exact Eg|exact R].
Qed.

Lemma explicit_all_in gs : forall out, explicit_all gs = Some out ->
  forall g, In g out -> exists T tbl ms, In (T, tbl) gs /\ explicit_h_ord (ord_of tbl) T = Some (g, ms).
Proof.
  induction gs as [|[T tbl] r IH]; intros out H g I.
  - simpl in H. inversion H; subst. destruct I.
  - cbn [explicit_all] in H. destruct (explicit_h_ord (ord_of tbl) T) as [[g' ms]|] eqn:E; [|discriminate].
    destruct (explicit_all r) as [r'|] eqn:Er; [|discriminate]. inversion H; subst. destruct I as [<-|I].
    + exists T, tbl, ms. split; [left; reflexivity|exact E].
    + destruct (IH r' eq_refl g I) as (T0 & tbl0 & ms0 & I0 & E0). exists T0, tbl0, ms0. split; [right; exact I0|exact E0].
Qed.

(** * one result *)
Section One.
  Variable ord : list N -> list N.
  Hypothesis ord_in : forall l x, In x (ord l) <-> In x l.
  Variables (host hb : hostg) (rc : its) (m : mapping) (T g : its).
  Hypothesis Hwh : wf_hostb host = true.
  Hypothesis Hb : base_of host hb.
  Hypothesis Hwx : wf_hostb hb = true.
  Hypothesis Hwr : wf_rcb rc = true.
  Hypothesis Hm : match_rcb hb rc m = true.
  Hypothesis Hg : glue hb rc m = Some T.

  (** clause (a) atom by atom *)
  Theorem result_atoms :
    (g = T \/ exists ms, explicit_h_ord ord T = Some (g, ms)) ->
    forall n a, label host n = Some a -> exists a', label g n = Some a' /\ set_hc (iG a') 0 = set_hc a 0.
  Proof.
    intros Hres n a Hl. destruct (base_facts host hb Hwh Hb) as (_ & _ & _ & _ & F5).
    destruct (F5 n a Hl) as (a1 & L1 & S1).
    destruct (left_is_host hb rc m T Hwx Hwr Hm Hg) as (_ & L2 & _). specialize (L2 n). rewrite L1 in L2.
    destruct (label T n) as [t|] eqn:Lt; [|discriminate]. cbn [option_map] in L2. inversion L2 as [E].
    destruct Hres as [->|(ms & He)].
    - exists t. split; [exact Lt|]. rewrite E. exact S1.
    - pose proof (glued_nodup hb rc m T Hwx Hwr Hm Hg) as Hnd.
      destruct (explicit_h_ord_accounting ord ord_in T g ms Hnd He) as (_ & _ & _ & _ & B5 & _).
      destruct (B5 n t Lt) as (t' & Lg & (S2 & _)). exists t'. split; [exact Lg|]. rewrite S2, E. exact S1.
  Qed.

  (** clause (c): the changed bonds *)
  Lemma new_edges_changed h ms : filter is_changed (new_edges h ms) = new_edges h ms.
  Proof. revert h. induction ms as [|sd r IH]; intros h; [reflexivity|]. cbn [new_edges filter]. unfold is_changed at 1 2. cbn. rewrite IH. reflexivity. Qed.

  Theorem result_changed_bonds :
    Permutation (changed_bonds T) (image_changed_bonds m rc) /\
    (forall ms, explicit_h_ord ord T = Some (g, ms) ->
       changed_bonds g = changed_bonds T ++ new_bond_keys (N.succ (max_id T)) ms /\
       forall sd, In sd ms -> same_group T (fst sd) (snd sd) /\ 0 < dl_of T (fst sd) /\ dl_of T (snd sd) < 0).
  Proof.
    split; [exact (changed_bonds_perm hb rc m T Hwx Hwr Hm Hg)|].
    intros ms He. pose proof (glued_nodup hb rc m T Hwx Hwr Hm Hg) as Hnd.
    destruct (explicit_h_ord_wiring ord ord_in T g ms Hnd He) as [E W]. split; [|exact W].
    unfold changed_bonds, new_bond_keys. rewrite E, filter_app, map_app, new_edges_changed. reflexivity.
  Qed.
End One.

(** * the whole list *)
Theorem its_list_sound inp rc l r gs :
  i_rule inp = Some (rc, l, r) -> wf_hostb (i_host inp) = true -> wf_rcb rc = true ->
  forallb (call_okb (has_XH l) (i_host inp) rc) (i_calls inp) = true ->
  spec_its inp = Some gs ->
  forall g, In g gs -> instance_of (i_host inp) rc g.
Proof.
  intros Er Hwh Hwr Hc Hs g Ig. unfold spec_its in Hs. rewrite Er in Hs.
  assert (Hgl : spec_glued inp = glue_all (has_XH l) (i_host inp) rc (i_calls inp) (i_tbls inp)).
  { unfold spec_glued, spec_flag. rewrite Er. reflexivity. }
  assert (Src : exists T tbl, In (T, tbl) (spec_glued inp) /\ (g = T \/ exists ms, explicit_h_ord (ord_of tbl) T = Some (g, ms))).
  { destruct (i_explicit inp).
    - destruct (explicit_all_in _ gs Hs g Ig) as (T & tbl & ms & I & E). exists T, tbl. split; [exact I|]. right. exists ms. exact E.
    - inversion Hs; subst. apply in_map_iff in Ig. destruct Ig as ([T tbl] & <- & I). exists T, tbl. split; [exact I|]. left. reflexivity. }
  destruct Src as (T & tbl & I & Hres). rewrite Hgl in I.
  destruct (glue_all_in _ _ _ _ _ _ _ I) as (c & hb & x & Ic & Eg & R).
  rewrite forallb_forall in Hc. specialize (Hc c Ic). unfold call_okb in Hc.
  assert (K : base_of (i_host inp) hb /\ wf_hostb hb = true /\ match_rcb hb rc x = true).
  { destruct R as [(Ef & -> & ->)|(Ef & rs & Es & Ix & ->)]; rewrite Ef in Hc.
    - split; [left; reflexivity|]. split; [exact Hwh|exact Hc].
    - rewrite Es in Hc. cbn zeta in Hc. apply andb_prop in Hc. destruct Hc as [H1 H2]. rewrite forallb_forall in H2.
      split; [right; eexists; reflexivity|]. split; [exact H1|exact (H2 x Ix)]. }
  destruct K as (Kb & Kw & Km).
  exists hb, x, T, tbl. split; [exact Kb|]. split; [exact Kw|]. split; [exact Km|]. split; [exact Eg|]. split; [exact Hres|].
  destruct (glued_result_sound (ord_of tbl) (ord_of_in tbl) (i_host inp) hb rc x T g Hwh Kb Kw Hwr Km Eg Hres) as (A1 & A2 & A3 & A4).
  destruct (result_changed_bonds (ord_of tbl) (ord_of_in tbl) hb rc x T g Kw Hwr Km Eg) as (C1 & C2).
  destruct (glued_atoms hb rc x T Hwr Km Eg) as (G1 & G2).
  pose proof (result_atoms (ord_of tbl) (ord_of_in tbl) (i_host inp) hb rc x T g Hwh Kb Kw Hwr Km Eg Hres) as A5.
  repeat (split; [assumption|]). exact C2.
Qed.

(** whatever script of reads is run on a fresh reactor: every graph in every list it returns is such an instance *)
Corollary reads_return_instances inp rc l r :
  i_rule inp = Some (rc, l, r) -> wf_hostb (i_host inp) = true -> wf_rcb rc = true ->
  forallb (call_okb (has_XH l) (i_host inp) rc) (i_calls inp) = true -> nocrash inp ->
  forall ops gs, In (Vits gs) (run_ops inp rs0 ops) -> forall g, In g gs -> instance_of (i_host inp) rc g.
Proof.
  intros Er Hwh Hwr Hc Hnc ops gs Iv g Ig. rewrite (reads_stable inp ops Hnc) in Iv.
  apply in_map_iff in Iv. destruct Iv as (op & Ev & _).
  assert (Hs : spec_its inp = Some gs).
  { destruct op; cbn [spec_val] in Ev.
    - destruct (i_rule inp); discriminate.
    - destruct (i_rule inp); discriminate.
    - destruct (i_rule inp); discriminate.
    - destruct (spec_its inp) as [gs'|]; [inversion Ev; reflexivity|discriminate].
    - destruct (spec_smarts inp); discriminate.
    - destruct (spec_smarts inp); discriminate. }
  exact (its_list_sound inp rc l r gs Er Hwh Hwr Hc Hs g Ig).
Qed.

(** * the default mode, from the TEMPLATE: the rule glued is [synrule tpl true]; if the template satisfies [tpl_condition]
    (every stripped hydrogen keeps its number of bonds to the kept heavy atoms, the kept atoms keep the total charge — a
    condition on the template alone, proof/C03_Spec.v) every graph of its_list conserves every element count incl. hydrogen
    and the charge, and has the substrate's composition and bonds on its reactant side *)
Theorem its_list_default_mode inp tpl rc l r gs :
  i_rule inp = synrule tpl true -> synrule tpl true = Some (rc, l, r) ->
  nodupb (node_ids tpl) = true -> (forall k a, In (k, a) (gnodes tpl) -> a_el (iH a) = a_el (iG a)) ->
  simple_edgesb (gedges tpl) = true -> tpl_condition tpl ->
  wf_hostb (i_host inp) = true -> wf_rcb rc = true ->
  forallb (call_okb (has_XH l) (i_host inp) rc) (i_calls inp) = true ->
  spec_its inp = Some gs ->
  forall g, In g gs ->
    (forall e, elem_count e (fst (its_decompose g)) = elem_count e (snd (its_decompose g))) /\
    total_charge (fst (its_decompose g)) = total_charge (snd (its_decompose g)) /\
    (forall e, elem_count e (fst (its_decompose g)) = elem_count e (mol_of_host (i_host inp))) /\
    total_charge (fst (its_decompose g)) = total_charge (mol_of_host (i_host inp)) /\
    (forall a b, In a (node_ids (i_host inp)) -> In b (node_ids (i_host inp)) -> bondG g a b = adj (i_host inp) a b).
Proof.
  intros Ei Es Hnd Hel Hsi Hc Hwh Hwr Hcalls Hits g Ig. rewrite Es in Ei.
  destruct (its_list_sound inp rc l r gs Ei Hwh Hwr Hcalls Hits g Ig)
    as (hb & m & T & tbl & _ & _ & _ & _ & _ & A1 & A2 & A3 & _ & A4 & _).
  destruct (A4 (default_rule_balanced tpl rc l r Hnd Hel Hsi Es Hc)) as [B1 B2]. auto.
Qed.

(** * the matcher's contract as hypothesis *)

Theorem match_okb_left host rc l m :
  edges_closedb rc = true -> left_of_rcb rc l = true -> match_okb host l m = true -> match_rcb host rc m = true.
Proof.
  intros Hc Hl H. unfold match_okb in H. unfold match_rcb.
  apply andb_prop in H. destruct H as [H H5]. apply andb_prop in H. destruct H as [H H4].
  apply andb_prop in H. destruct H as [H H3]. rewrite H. clear H. cbn [andb].
  unfold left_of_rcb in Hl. apply andb_prop in Hl. destruct Hl as [Hl L3]. apply andb_prop in Hl. destruct Hl as [L1 L2].
  apply Nat.eqb_eq in L1. apply Nat.eqb_eq in H3. rewrite <- L1, (proj2 (Nat.eqb_eq _ _) H3). cbn [andb].
  rewrite forallb_forall in H4, H5, L2, L3.
  assert (Hn : forall k a, In (k, a) (gnodes rc) -> rc_node_okb host m (k, a) = true).
  { intros k a I. specialize (L2 _ I). unfold node_same in L2. cbn [fst snd] in L2.
    destruct (label l k) as [la|] eqn:El; [|discriminate]. unfold label in El. apply assoc_in in El.
    specialize (H4 _ El). unfold node_okb in H4. unfold rc_node_okb. cbn [fst snd] in *.
    destruct (mget m k) as [h|]; [|discriminate]. destruct (label host h) as [ha|]; [|discriminate].
    apply andb_prop in L2. destruct L2 as [L2 Lh]. apply andb_prop in L2. destruct L2 as [Le Lq].
    apply N.eqb_eq in Le. apply Z.eqb_eq in Lq. apply Z.eqb_eq in Lh. rewrite <- Le, <- Lq, <- Lh. exact H4. }
  apply andb_true_intro. split.
  - apply forallb_forall. intros [k a] I. apply Hn. exact I.
  - apply forallb_forall. intros [[u v] x] I. unfold rc_edge_okb.
    unfold edges_closedb in Hc. rewrite forallb_forall in Hc. pose proof (Hc _ I) as Hc'. cbn [fst snd] in Hc'.
    apply andb_prop in Hc'. destruct Hc' as [Hu Hv]. apply mem_spec in Hu, Hv.
    assert (Hg : forall w, In w (node_ids rc) -> exists h, mget m w = Some h).
    { intros w Iw. unfold node_ids in Iw. apply in_map_iff in Iw. destruct Iw as ([k a] & <- & Iw).
      specialize (Hn k a Iw). unfold rc_node_okb in Hn. cbn [fst] in *. destruct (mget m k); [eauto|discriminate]. }
    destruct (Hg u Hu) as [hu Eu]. destruct (Hg v Hv) as [hv Ev]. rewrite Eu, Ev.
    destruct (0 <? eG x) eqn:Ep; [|reflexivity].
    specialize (L3 _ I). unfold edge_same in L3. cbn [fst snd] in L3. rewrite Ep in L3.
    apply existsb_exists in L3. destruct L3 as ([[a b] o] & If & Hf). cbn [fst snd] in Hf.
    apply andb_prop in Hf. destruct Hf as [Hp Ho]. apply Z.eqb_eq in Ho. subst o.
    specialize (H5 _ If). unfold edge_okb in H5.
    destruct (proj1 (peq_spec a b u v) Hp) as [[-> ->]|[-> ->]].
    + rewrite Eu, Ev in H5. exact H5.
    + rewrite Eu, Ev in H5. rewrite adj_sym. exact H5.
Qed.

Lemma call_okm_okb host rc l c : edges_closedb rc = true -> left_of_rcb rc l = true ->
  call_okm host l c = true -> call_okb (has_XH l) host rc c = true.
Proof.
  intros Hc Hl H. unfold call_okm in H. unfold call_okb. destruct (has_XH l).
  - destruct (snd c) as [rs|]; [|reflexivity]. cbn zeta in *. apply andb_prop in H. destruct H as [H1 H2]. rewrite H1. cbn [andb].
    rewrite forallb_forall in H2. apply forallb_forall. intros x Ix. exact (match_okb_left _ rc l x Hc Hl (H2 x Ix)).
  - exact (match_okb_left host rc l _ Hc Hl H).
Qed.

Theorem its_list_sound_matcher inp rc l r gs :
  i_rule inp = Some (rc, l, r) -> matcher_hyps_okb (i_rule inp) (i_host inp) (i_calls inp) = true ->
  spec_its inp = Some gs -> forall g, In g gs -> instance_of (i_host inp) rc g.
Proof.
  intros Er Hh Hs g Ig. rewrite Er in Hh. unfold matcher_hyps_okb in Hh.
  apply andb_prop in Hh. destruct Hh as [Hh H5]. apply andb_prop in Hh. destruct Hh as [Hh H4].
  apply andb_prop in Hh. destruct Hh as [Hh H3]. apply andb_prop in Hh. destruct Hh as [H1 H2].
  apply (its_list_sound inp rc l r gs Er H1 H2); [|exact Hs|exact Ig].
  rewrite forallb_forall in H5. apply forallb_forall. intros c Ic. exact (call_okm_okb _ rc l c H3 H4 (H5 c Ic)).
Qed.

(** [left_of_rcb] holds by construction in the implicit-template mode (the rule is the template, its left graph the
    template's reactant side); in the default mode it is evaluated on every scripted case *)
Lemma left_of_rcb_dec tpl : NoDup (node_ids tpl) -> left_of_rcb tpl (fst (its_decompose tpl)) = true.
Proof.
  intros Hnd. unfold left_of_rcb, its_decompose, dec_side. cbn [fst gnodes gedges]. rewrite map_length, Nat.eqb_refl. cbn [andb].
  apply andb_true_intro. split.
  - apply forallb_forall. intros [k a] I. unfold node_same, label. cbn [fst snd gnodes].
    rewrite (assoc_nodup_in k _ (dec_node (iG a))).
    + cbn [dec_node m_el m_ch m_hc]. rewrite N.eqb_refl, !Z.eqb_refl. reflexivity.
    + rewrite map_map. cbn [fst]. exact Hnd.
    + apply in_map_iff. exists (k, a). split; [reflexivity|exact I].
  - apply forallb_forall. intros [[u v] x] I. unfold edge_same. cbn [fst snd gedges]. destruct (0 <? eG x) eqn:Ep; [|reflexivity].
    apply existsb_exists. exists (u, v, eG x). split.
    + apply in_flat_map. exists (u, v, x). split; [exact I|]. rewrite Ep. left. reflexivity.
    + cbn [fst snd]. unfold peq. rewrite !N.eqb_refl, Z.eqb_refl. reflexivity.
Qed.

