(** C14 — parallel = serial from the pool's CONTRACT alone (model/C14_PoolModel.v); the pool [par_map] of
    model/C14_CrnModel.v satisfies it, and the parametrised functions at that pool are the functions of that model. *)
From Coq Require Import List Bool Arith.
Import ListNotations.
From SK Require Import model.C14_CrnModel model.C14_PoolModel.

Lemma filter_tagged {A} (check : A -> bool) (p : bool -> bool) rows :
  map fst (filter (fun q : A * bool => p (snd q)) (map (fun r => (r, check r)) rows)) = filter (fun r => p (check r)) rows.
Proof.
  induction rows as [|r rows IH]; simpl; [reflexivity|].
  destruct (p (check r)); simpl; now rewrite IH.
Qed.

Section Contract.
  Variable pm : pool_map.
  Hypothesis Hpm : pool_contract pm.

  Lemma run_tasks_with_eq parallel workers t tasks :
    run_tasks_with pm parallel workers t tasks = map (apply_rule_worker t) tasks.
  Proof. unfold run_tasks_with. destruct (parallel && (1 <? length tasks)); [apply Hpm|reflexivity]. Qed.

  Lemma build_loop_with_serial c parallel workers t n : forall step st frontier ntasks,
    build_loop_with pm c parallel workers t n step st frontier ntasks =
    build_loop_with pm c false 0 t n step st frontier ntasks.
  Proof.
    induction n as [|n IH]; intros step st frontier ntasks; simpl; auto.
    destruct (cc_use_frontier c && match frontier with [] => true | _ => false end); auto.
    destruct (tasks_of_rules c (s_index st) (s_pool st) frontier 0 (cc_rules c) (s_seen st) (cc_max_tasks c) []) as [seen' tasks].
    destruct tasks as [|tk tasks]; auto.
    rewrite !run_tasks_with_eq.
    destruct (fold_left (integrate_result c step) (map (apply_rule_worker t) (tk :: tasks)) (with_seen st seen', [])) as [st1 nf].
    apply IH.
  Qed.

  Lemma build_from_with_serial c parallel workers t st0 seeds :
    build_from_with pm c parallel workers t st0 seeds = build_from_with pm c false 0 t st0 seeds.
  Proof.
    unfold build_from_with. destruct (s_pool (init_pool st0 seeds)); [reflexivity|apply build_loop_with_serial].
  Qed.

  (** network expansion: for EVERY pool that returns one result per task in submission order *)
  Theorem builds_with_parallel_equals_serial c parallel workers t calls : forall st0,
    builds_from_with pm c parallel workers t st0 calls = builds_from_with pm c false 0 t st0 calls.
  Proof.
    induction calls as [|seeds calls IH]; intros st0; simpl; auto.
    rewrite build_from_with_serial. destruct (build_from_with pm c false 0 t st0 seeds) as [st1 n1]. now rewrite IH.
  Qed.

  Lemma rows_parallel_with_eq {A B} n_jobs (f : A -> B) rows : rows_parallel_with pm n_jobs f rows = map f rows.
  Proof. unfold rows_parallel_with. destruct (1 <? n_jobs); [apply Hpm|reflexivity]. Qed.

  Theorem validate_with_workers {A} n_jobs (check : A -> bool) rows :
    validate_column_with pm n_jobs check rows = validate_column_with pm 1 check rows /\
    fst (validate_column_with pm n_jobs check rows) = map check rows.
  Proof. unfold validate_column_with. rewrite !rows_parallel_with_eq. split; reflexivity. Qed.

  Theorem balance_with_workers {A} n_jobs (check : A -> bool) rows :
    balance_split_with pm n_jobs check rows = (filter check rows, filter (fun r => negb (check r)) rows).
  Proof.
    unfold balance_split_with. rewrite rows_parallel_with_eq. f_equal.
    - apply (filter_tagged check (fun b => b)).
    - apply (filter_tagged check negb).
  Qed.
End Contract.

(** executor.map as a chunked map: the pool of model/C14_CrnModel.v satisfies the contract *)
Lemma chunks_fuel_concat {A} fuel c : forall l : list A, concat (chunks_fuel fuel c l) = l.
Proof.
  induction fuel as [|fuel IH]; intros l; simpl.
  - apply app_nil_r.
  - destruct l as [|x l']; [reflexivity|].
    cbn [concat]. rewrite IH. apply firstn_skipn.
Qed.

Lemma chunks_concat {A} c (l : list A) : concat (chunks c l) = l.
Proof. apply chunks_fuel_concat. Qed.

Theorem par_map_contract : pool_contract (@par_map).
Proof. intros A B c f l. unfold par_map. rewrite <- concat_map, chunks_concat. reflexivity. Qed.

(** the [_with] functions at that pool ARE the functions the correspondence evaluates *)
Lemma run_tasks_instance parallel workers t tasks :
  run_tasks_with (@par_map) parallel workers t tasks = run_tasks parallel workers t tasks.
Proof. reflexivity. Qed.

(** (the two fixpoints have the same body once the pool is instantiated: they are convertible) *)
Lemma build_loop_instance c parallel workers t n step st frontier ntasks :
  build_loop_with (@par_map) c parallel workers t n step st frontier ntasks = build_loop c parallel workers t n step st frontier ntasks.
Proof. reflexivity. Qed.

Lemma build_from_instance c parallel workers t st0 seeds :
  build_from_with (@par_map) c parallel workers t st0 seeds = build_from c parallel workers t st0 seeds.
Proof. reflexivity. Qed.

Theorem builds_from_instance c parallel workers t calls st0 :
  builds_from_with (@par_map) c parallel workers t st0 calls = builds_from c parallel workers t st0 calls.
Proof. reflexivity. Qed.

Theorem rows_instances {A} n_jobs (check : A -> bool) rows :
  validate_column_with (@par_map) n_jobs check rows = validate_column n_jobs check rows /\
  balance_split_with (@par_map) n_jobs check rows = balance_split n_jobs check rows.
Proof. split; reflexivity. Qed.

(** non-vacuity: a pool that maps the list back to front and reverses the result also satisfies the contract (any evaluation order
    is allowed); one that drops an item does not *)
Definition rev_pool : pool_map := fun A B _ f l => rev (map f (rev l)).
Definition lossy_pool : pool_map := fun A B _ f l => map f (tl l).
Example pool_contract_examples : pool_contract rev_pool /\ ~ pool_contract lossy_pool.
Proof.
  split.
  - intros A B c f l. unfold rev_pool. now rewrite map_rev, rev_involutive.
  - intros H. specialize (H nat nat 0%nat (fun x => x) [1%nat]). discriminate.
Qed.
