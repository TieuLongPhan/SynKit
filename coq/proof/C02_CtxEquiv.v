(** C02 — the radius-k context commutes with every injective renumbering (the renumbering clause of the property,
    extended from the centre to the contexts). *)
From Coq Require Import List NArith ZArith Bool.
From SK Require Import lib.LGraph lib.C01_GraphLemmas model.C01_Model model.C02_Model proof.C02_Proof proof.C02_Ball.
Import ListNotations.
Local Open Scope Z_scope.

Theorem ctx_equivariant (f : N -> N) (Hinj : forall a b, f a = f b -> a = b) (g : its) k :
  extract_k (relabel f g) k = relabel f (extract_k g k).
Proof.
  destruct k as [|k]; [apply (rc_equivariant f Hinj)|].
  rewrite !extract_k_succ, (rc_equivariant f Hinj), node_ids_relabel. apply (ball_sub_equivariant f Hinj).
Qed.

Example C02_ctx_equivariant_nonvacuous :
  extract_k (relabel (N.add 10) ex_its) 2 = relabel (N.add 10) (extract_k ex_its 2) /\
  length (gnodes (extract_k ex_its 2)) = 7%nat.
Proof. split; [apply ctx_equivariant; intros a b; apply N.add_cancel_l|reflexivity]. Qed.
