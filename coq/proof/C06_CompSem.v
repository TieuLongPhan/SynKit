(** C06 — meaning of the limit-free component-aware result
    [comp_unl]: under the VF2 contract it lists exactly the label-preserving
    monomorphisms that send different pattern components into different host
    components.  Stdlib lists. *)
From Coq Require Import List NArith Bool Arith Lia Permutation SetoidList Relations Operators_Properties.
From SK Require Import lib.LGraph lib.Mono lib.Reach lib.C01_GraphLemmas model.C06_Model lib.C06_Spec
  proof.C06_All proof.C06_Comp proof.C06_Comps.
Import ListNotations.

(** ---------- generic list facts ---------- *)
Lemma NoDup_map_filter {X Y} (f : X -> Y) (g : X -> bool) l : NoDup (map f l) -> NoDup (map f (filter g l)).
Proof.
  induction l as [|x l IH]; simpl; intros Hnd; [constructor|].
  inversion Hnd as [|? ? Hnot Hnd']; subst. destruct (g x); simpl; auto.
  constructor; auto. intros I. apply Hnot. apply in_map_iff in I. destruct I as (y & E & I).
  apply in_map_iff. exists y. split; auto. apply filter_In in I. tauto.
Qed.

Lemma NoDup_map_eq {X Y} (f : X -> Y) l a b : NoDup (map f l) -> In a l -> In b l -> f a = f b -> a = b.
Proof.
  induction l as [|x l IH]; simpl; intros Hnd Ia Ib E; [destruct Ia|].
  inversion Hnd as [|? ? Hnot Hnd']; subst. destruct Ia as [<-|Ia], Ib as [<-|Ib]; auto.
  - exfalso. apply Hnot. rewrite E. apply in_map. exact Ib.
  - exfalso. apply Hnot. rewrite <- E. apply in_map. exact Ia.
Qed.

Lemma functional (m : mapping) p h h' : NoDup (map fst m) -> In (p, h) m -> In (p, h') m -> h = h'.
Proof. intros Hnd I I'. pose proof (NoDup_map_eq fst m _ _ Hnd I I' eq_refl). congruence. Qed.

Lemma in_map_fst (m : mapping) p : In p (map fst m) <-> exists h, In (p, h) m.
Proof.
  rewrite in_map_iff. split.
  - intros ([q h] & E & I). simpl in E. subst. eauto.
  - intros (h & I). exists (p, h). auto.
Qed.

Lemma in_map_snd (m : mapping) h : In h (map snd m) <-> exists p, In (p, h) m.
Proof.
  rewrite in_map_iff. split.
  - intros ([p k] & E & I). simpl in E. subst. eauto.
  - intros (p & I). exists (p, h). auto.
Qed.

Lemma memnat_spec x l : memnat x l = true <-> In x l.
Proof.
  unfold memnat. rewrite existsb_exists. split.
  - intros (y & I & E). apply Nat.eqb_eq in E. subst. exact I.
  - intros I. exists x. split; auto. apply Nat.eqb_refl.
Qed.

Lemma clash_false m acc : clash m acc = false <-> forall p, In p (map fst m) -> ~ In p (map fst acc).
Proof.
  unfold clash. rewrite <- not_true_iff_false, existsb_exists. split.
  - intros Hn p I I'. apply Hn. apply in_map_iff in I. destruct I as (ph & <- & I).
    exists ph. split; auto. apply LGraph.mem_spec. exact I'.
  - intros Hn (ph & I & E). apply LGraph.mem_spec in E. apply (Hn (fst ph)); auto. apply in_map. exact I.
Qed.

Lemma in_index_from {X} (l : list X) : forall k i x, In (i, x) (index_from k l) <-> k <= i /\ nth_error l (i - k) = Some x.
Proof.
  induction l as [|y l IH]; intros k i x; simpl.
  - split; [intros []|]. intros [_ E]. destruct (i - k); discriminate.
  - rewrite IH. split.
    + intros [E|[Hle E]].
      * inversion E; subst. rewrite Nat.sub_diag. auto.
      * split; [lia|]. replace (i - k) with (S (i - S k)) by lia. exact E.
    + intros [Hle E]. destruct (i - k) as [|d] eqn:Ed.
      * left. simpl in E. inversion E; subst. f_equal. lia.
      * right. split; [lia|]. simpl in E. replace (i - S k) with d by lia. exact E.
Qed.

Lemma in_cands (hcs : list (list N)) pc i hc :
  In (i, hc) (cands (index_from 0 hcs) pc) <-> nth_error hcs i = Some hc /\ length pc <= length hc.
Proof.
  unfold cands. rewrite filter_In, in_index_from, Nat.sub_0_r, Nat.leb_le. cbn [snd].
  split; [intros [[_ E] L]|intros [E L]]; repeat split; auto. lia.
Qed.

Lemma Forall2_exists {X Y} (R : X -> Y -> Prop) l : (forall x, In x l -> exists y, R x y) -> exists ys, Forall2 R l ys.
Proof.
  induction l as [|x l IH]; intros Hx; [exists []; constructor|].
  destruct (Hx x (or_introl eq_refl)) as (y & Hy).
  destruct IH as (ys & Hys); [intros z I; apply Hx; right; exact I|].
  exists (y :: ys). constructor; auto.
Qed.

Lemma Forall2_in_l {X Y} (R : X -> Y -> Prop) l ys x : Forall2 R l ys -> In x l -> exists y, In y ys /\ R x y.
Proof.
  induction 1 as [|a b l ys Hab _ IH]; intros I; [destruct I|].
  destruct I as [<-|I]; [exists b; split; [left; reflexivity|exact Hab]|].
  destruct (IH I) as (y & Iy & Hy). exists y. split; [right; exact Iy|exact Hy].
Qed.

Lemma Forall2_in_r {X Y} (R : X -> Y -> Prop) l ys y : Forall2 R l ys -> In y ys -> exists x, In x l /\ R x y.
Proof.
  induction 1 as [|a b l ys Hab _ IH]; intros I; [destruct I|].
  destruct I as [<-|I]; [exists a; split; [left; reflexivity|exact Hab]|].
  destruct (IH I) as (x & Ix & Hx). exists x. split; [right; exact Ix|exact Hx].
Qed.

(** pigeonhole along an injective relation *)
Lemma rel_length {X Y} (R : X -> Y -> Prop) : forall (l : list X) (l' : list Y),
  NoDup l -> (forall x, In x l -> exists y, In y l' /\ R x y) ->
  (forall x x' y, R x y -> R x' y -> x = x') -> length l <= length l'.
Proof.
  induction l as [|x l IH]; intros l' Hnd Hex Hinj; simpl; [lia|].
  inversion Hnd as [|? ? Hnot Hnd']; subst.
  destruct (Hex x (or_introl eq_refl)) as (y & Iy & Rxy).
  apply in_split in Iy. destruct Iy as (l1 & l2 & ->).
  rewrite app_length. simpl. rewrite Nat.add_succ_r, <- app_length. apply le_n_S.
  apply IH; auto. intros x' Ix'. destruct (Hex x' (or_intror Ix')) as (y' & Iy' & Rx'y').
  exists y'. split; [|exact Rx'y'].
  apply in_app_or in Iy'. apply in_or_app. destruct Iy' as [I|[E|I]]; auto.
  exfalso. subst y'. assert (x = x') by (eapply Hinj; eauto). subst x'. contradiction.
Qed.

(** ---------- generic completeness of the limit-free back-tracking ---------- *)
Definition keys (hm : nat * mapping) : list N := map fst (snd hm).

Lemma bt_unl_complete : forall (lv : list (list (nat * mapping))) (ms : list (nat * mapping)) used acc,
  Forall2 (fun hm l => In hm l) ms lv ->
  NoDup (map fst ms) ->
  (forall hm, In hm ms -> ~ In (fst hm) used) ->
  (forall hm p, In hm ms -> In p (keys hm) -> ~ In p (map fst acc)) ->
  ForallOrdPairs (fun a b => forall p, In p (keys a) -> ~ In p (keys b)) ms ->
  In (concat (rev (map snd ms)) ++ acc) (bt_unl lv used acc).
Proof.
  intros lv ms used acc HF. revert used acc.
  induction HF as [|[j mi] l ms lv Hin _ IH]; intros used acc Hnd Hused Hacc Hpair.
  - simpl. left. reflexivity.
  - cbn [bt_unl]. apply in_flat_map. exists (j, mi). split; [exact Hin|]. cbn [fst snd].
    assert (E1 : memnat j used = false).
    { rewrite <- not_true_iff_false, memnat_spec. apply (Hused (j, mi)). left. reflexivity. }
    assert (E2 : clash mi acc = false).
    { apply clash_false. intros p I. apply (Hacc (j, mi) p); [left; reflexivity|exact I]. }
    rewrite E1, E2. cbn [orb].
    simpl in Hnd. inversion Hnd as [|? ? Hnot Hnd']; subst.
    inversion Hpair as [|? ? Hhead Hpair']; subst.
    specialize (IH (j :: used) (mi ++ acc) Hnd').
    replace (concat (rev (map snd ((j, mi) :: ms))) ++ acc) with (concat (rev (map snd ms)) ++ mi ++ acc).
    + apply IH; auto.
      * intros hm I [E|I']; [|apply (Hused hm); [right; exact I|exact I']].
        apply Hnot. rewrite E. apply in_map. exact I.
      * intros hm p I Ip. rewrite map_app, in_app_iff. intros [I'|I'].
        -- rewrite Forall_forall in Hhead. apply (Hhead hm I p I'). exact Ip.
        -- apply (Hacc hm p); [right; exact I|exact Ip|exact I'].
    + cbn [map rev snd]. rewrite concat_app. simpl. rewrite app_nil_r, <- app_assoc. reflexivity.
Qed.

Section Sem.
Variable enum : list N -> list N -> list mapping.
Variables H P : graph.
Hypothesis HwfH : gwf H.
Hypothesis HwfP : gwf P.
Hypothesis Hor : oracle_ok enum H P.

Lemma in_percc_of pc j m :
  In (j, m) (percc_of enum H pc) <->
  exists hc, nth_error (comps H) j = Some hc /\ length pc <= length hc /\ In m (enum hc pc).
Proof.
  unfold percc_of, percc. rewrite in_flat_map. split.
  - intros ([i hc] & I & Im). apply in_cands in I. cbn [fst snd] in Im.
    apply in_map_iff in Im. destruct Im as (m' & [= <- <-] & Im). exists hc. tauto.
  - intros (hc & E & Hle & Im). exists (j, hc). split; [apply in_cands; auto|apply in_map; exact Im].
Qed.

(** ---------- soundness ---------- *)
(** what the back-tracking puts in front of [acc] while it works through the pattern components [rem]: a separating
    monomorphism defined on exactly these components, into host components that were not in use *)
Definition part (rem : list (list N)) (used : list nat) (X : mapping) : Prop :=
  is_mono_on H P (node_ids H) (concat rem) X /\ separating H P X /\
  forall p h, In (p, h) X -> exists j hc, ~ In j used /\ nth_error (comps H) j = Some hc /\ In h hc.

Lemma bt_unl_part : forall rem used acc y,
  NoDup rem -> (forall pc, In pc rem -> In pc (comps P)) ->
  In y (bt_unl (map (percc_of enum H) rem) used acc) -> exists X, y = X ++ acc /\ part rem used X.
Proof.
  induction rem as [|pc r IH]; intros used acc y Hnd Hrem Hin.
  - simpl in Hin. destruct Hin as [<-|[]]. exists []. split; [reflexivity|]. split; [|split].
    + split; [constructor|]. split; [simpl; tauto|]. split; [constructor|]. split; [intros ? ? []|intros ? ? ? ? ? []].
    + intros ? ? ? ? [].
    + intros ? ? [].
  - cbn [map bt_unl] in Hin. apply in_flat_map in Hin. destruct Hin as ([j mi] & Ihm & Hin). cbn [fst snd] in Hin.
    destruct (memnat j used || clash mi acc) eqn:Esk; [destruct Hin|].
    apply orb_false_iff in Esk. destruct Esk as [Eu _].
    assert (Hj : ~ In j used) by (rewrite <- memnat_spec; congruence).
    inversion Hnd as [|? ? Hnotin Hnd']; subst.
    assert (Hr : forall pc', In pc' r -> In pc' (comps P)) by (intros pc' I; apply Hrem; right; exact I).
    destruct (IH (j :: used) (mi ++ acc) y Hnd' Hr Hin) as (X & -> & (A' & B' & C' & D' & E') & S' & U').
    exists (X ++ mi). split; [rewrite <- app_assoc; reflexivity|].
    apply in_percc_of in Ihm. destruct Ihm as (hc & Ej & Hle & Imi).
    assert (Ihc : In hc (comps H)) by (eapply nth_error_In; eauto).
    assert (Ipc : In pc (comps P)) by (apply Hrem; left; reflexivity).
    destruct (proj1 (proj2 Hor hc pc Ihc Ipc Hle) mi Imi) as (A & B & C & D & E).
    destruct (comps_class P HwfP pc Ipc) as (_ & _ & _ & Hclass).
    destruct (comps_class H HwfH hc Ihc) as (_ & _ & Hinc & HclassH).
    assert (Hkeys : forall p h, In (p, h) mi -> In p pc) by (intros p h I; apply B, in_map_fst; eauto).
    (* the two parts live on different pattern components and in different host components *)
    assert (Hc1 : forall p h, In (p, h) X -> ~ In p pc).
    { intros p h I Ip. assert (Ic : In p (concat r)) by (apply B', in_map_fst; eauto).
      apply in_concat in Ic. destruct Ic as (pc' & I' & Ip'). apply Hnotin.
      rewrite (comps_disjoint_val P HwfP pc pc' p); auto. }
    assert (Hc2 : forall p h p' h', In (p, h) X -> In (p', h') mi -> ~ gconn H h' h).
    { intros p h p' h' I I' Hc. destruct (U' p h I) as (j' & hc' & Ij' & Ej' & Ih').
      assert (In h hc) by (apply (HclassH h' h (proj1 (D p' h' I'))); exact Hc).
      apply Ij'. left. eapply (comps_disjoint H HwfH j j' hc hc' h); eauto. }
    split; [split; [|split; [|split; [|split]]]|split].
    + rewrite map_app. apply nodup_app; auto. intros p Ip Ip'.
      apply in_map_fst in Ip. destruct Ip as (h & Ip). apply (Hc1 p h Ip). apply B. exact Ip'.
    + intros p. rewrite map_app, in_app_iff, B', B. cbn [concat]. rewrite in_app_iff. apply or_comm.
    + rewrite map_app. apply nodup_app; auto. intros h Ih Ih'.
      apply in_map_snd in Ih. destruct Ih as (p & Ih). apply in_map_snd in Ih'. destruct Ih' as (p' & Ih').
      apply (Hc2 p h p' h Ih Ih'). apply gconn_refl.
    + intros p h I. apply in_app_or in I. destruct I as [I|I]; [apply (D' p h I)|].
      destruct (D p h I) as [Ih Hn]. split; [apply Hinc; exact Ih|exact Hn].
    + intros p h p' h' b I I' Eb. apply in_app_or in I. apply in_app_or in I'.
      destruct I as [I|I], I' as [I'|I']; [eapply E'; eauto| | |eapply E; eauto]; exfalso.
      * apply (Hc1 p h I). apply (Hclass p' p (Hkeys p' h' I')). apply gconn_sym, gconn_adj. congruence.
      * apply (Hc1 p' h' I'). apply (Hclass p p' (Hkeys p h I)). apply gconn_adj. congruence.
    + intros p h p' h' I I' Hc. apply in_app_or in I. apply in_app_or in I'.
      destruct I as [I|I], I' as [I'|I']; [eapply S'; eauto| | |].
      * exfalso. apply (Hc2 p h p' h' I I'). apply gconn_sym. exact Hc.
      * exfalso. apply (Hc2 p' h' p h I' I). exact Hc.
      * apply (Hclass p p' (Hkeys p h I)). eapply Hkeys; eauto.
    + intros p h I. apply in_app_or in I. destruct I as [I|I].
      * destruct (U' p h I) as (j' & hc' & Ij' & Ej' & Ih'). exists j', hc'. split; [|auto].
        intros Iu. apply Ij'. right. exact Iu.
      * exists j, hc. split; [exact Hj|]. split; [exact Ej|apply (D p h I)].
Qed.

(** the components, in any order, list the pattern nodes *)
Lemma in_concat_comps rem : Permutation rem (comps P) -> forall p, In p (concat rem) <-> In p (node_ids P).
Proof.
  intros Hp p. rewrite in_concat. split.
  - intros (pc & Ipc & Ip). apply (Permutation_in _ Hp) in Ipc. apply (comps_class P HwfP pc Ipc). exact Ip.
  - intros I. destruct (comps_cover P HwfP p I) as (pc & Ipc & Ip). exists pc. split; [|exact Ip].
    eapply Permutation_in; [apply Permutation_sym; exact Hp|exact Ipc].
Qed.

(** ---------- completeness ---------- *)
Lemma mono_conn m : is_mono H P m -> forall p p', gconn P p p' ->
  forall h h', In (p, h) m -> In (p', h') m -> gconn H h h'.
Proof.
  intros (A & B & C & D & E) p p' Hc. apply clos_rt_rt1n_iff in Hc.
  induction Hc as [p|p y p' Hs _ IH]; intros h h' I I'.
  - rewrite (functional m p h h' A I I'). apply gconn_refl.
  - assert (Iy : In y (node_ids P)) by (apply (adjacent_nodes P p y HwfP Hs)).
    apply B in Iy. apply in_map_fst in Iy. destruct Iy as (hy & Iy).
    unfold adjacent in Hs. destruct (LGraph.adj P p y) as [b|] eqn:Eb; [|congruence].
    destruct (E p h y hy b I Iy Eb) as (b' & Eb' & _).
    eapply gconn_trans; [apply gconn_adj; rewrite Eb'; discriminate|]. apply IH; auto.
Qed.

Definition restrict (m : mapping) (pc : list N) : mapping := filter (fun ph => LGraph.mem (fst ph) pc) m.

Lemma in_restrict m pc p h : In (p, h) (restrict m pc) <-> In (p, h) m /\ In p pc.
Proof. unfold restrict. rewrite filter_In, LGraph.mem_spec. simpl. tauto. Qed.

Definition chosen (m : mapping) (pc : list N) (hm : nat * mapping) : Prop :=
  In hm (percc_of enum H pc) /\ Permutation (restrict m pc) (snd hm) /\
  exists hc p0 h0, nth_error (comps H) (fst hm) = Some hc /\ In p0 pc /\ In (p0, h0) m /\ In h0 hc.

Lemma choose m : is_mono H P m -> forall pc, In pc (comps P) -> exists hm, chosen m pc hm.
Proof.
  intros Hm pc Ipc. pose proof Hm as (A & B & C & D & E).
  destruct (comps_class P HwfP pc Ipc) as (Hne & Hndpc & Hincl & Hclass).
  destruct pc as [|p0 pc']; [congruence|]. set (pc := p0 :: pc') in *.
  assert (Ip0 : In p0 pc) by (left; reflexivity).
  assert (I0 : In p0 (map fst m)) by (apply B, Hincl, Ip0).
  apply in_map_fst in I0. destruct I0 as (h0 & I0).
  destruct (D p0 h0 I0) as (Ih0 & _).
  destruct (comps_cover H HwfH h0 Ih0) as (hc & Ihc & Ih0c).
  destruct (In_nth_error _ _ Ihc) as (j & Ej).
  destruct (comps_class H HwfH hc Ihc) as (_ & _ & _ & HclassH).
  assert (Himg : forall p h, In (p, h) (restrict m pc) -> In h hc).
  { intros p h I. apply in_restrict in I. destruct I as [I Ip].
    apply (HclassH h0 h Ih0c). apply (mono_conn m Hm p0 p); auto. apply (Hclass p0 p Ip0). exact Ip. }
  assert (Hmo : is_mono_on H P hc pc (restrict m pc)).
  { split; [apply NoDup_map_filter; exact A|]. split; [|split; [apply NoDup_map_filter; exact C|split]].
    - intros p. rewrite in_map_fst. split.
      + intros (h & I). apply in_restrict in I. tauto.
      + intros Ip. assert (I : In p (map fst m)) by (apply B, Hincl, Ip).
        apply in_map_fst in I. destruct I as (h & I). exists h. apply in_restrict. auto.
    - intros p h I. split; [eapply Himg; eauto|]. apply in_restrict in I. apply (D p h). tauto.
    - intros p h p' h' b I I'. apply in_restrict in I. apply in_restrict in I'. apply E; tauto. }
  assert (Hle : length pc <= length hc).
  { destruct Hmo as (A' & B' & C' & D' & _).
    assert (Hl : length pc = length (map fst (restrict m pc))).
    { apply Permutation_length. apply NoDup_Permutation; auto. intros p. symmetry. apply B'. }
    rewrite Hl, map_length, <- (map_length snd). apply NoDup_incl_length; [exact C'|].
    intros h Ih. apply in_map_snd in Ih. destruct Ih as (p & Ih). eapply Himg; eauto. }
  destruct (proj2 Hor hc pc Ihc Ipc Hle) as (_ & Hcomplete & _).
  destruct (Hcomplete _ Hmo) as (mi & Imi & Hperm).
  exists (j, mi). split; [|split; [exact Hperm|exists hc, p0, h0; auto]].
  apply in_percc_of. exists hc. split; [exact Ej|]. split; [exact Hle|exact Imi].
Qed.

Lemma chosen_keys m pc hm p : chosen m pc hm -> In p (keys hm) -> In p pc.
Proof.
  intros (_ & Hp & _) I. unfold keys in I. apply in_map_fst in I. destruct I as (h & I).
  apply (Permutation_in _ (Permutation_sym Hp)) in I. apply in_restrict in I. tauto.
Qed.

Lemma chosen_distinct m : is_mono H P m -> separating H P m ->
  forall pc pc' hm hm', In pc (comps P) -> In pc' (comps P) -> chosen m pc hm -> chosen m pc' hm' ->
  fst hm = fst hm' -> pc = pc'.
Proof.
  intros Hm Hsep pc pc' hm hm' Ipc Ipc' (_ & _ & hc & p0 & h0 & Ej & Ip0 & I0 & Ih0) (_ & _ & hc' & p1 & h1 & Ej' & Ip1 & I1 & Ih1) Ef.
  rewrite Ef in Ej. rewrite Ej in Ej'. inversion Ej'; subst hc'.
  assert (Ihc : In hc (comps H)) by (eapply nth_error_In; eauto).
  destruct (comps_class H HwfH hc Ihc) as (_ & _ & _ & HclassH).
  assert (Hc : gconn P p0 p1).
  { apply (Hsep p0 h0 p1 h1 I0 I1). apply (HclassH h0 h1 Ih0). exact Ih1. }
  destruct (comps_class P HwfP pc Ipc) as (_ & _ & _ & Hclass).
  eapply (comps_disjoint_val P HwfP pc pc' p1); eauto. apply (Hclass p0 p1 Ip0). exact Hc.
Qed.

Lemma chosen_lists m : is_mono H P m -> separating H P m ->
  forall rem ms, NoDup rem -> (forall pc, In pc rem -> In pc (comps P)) -> Forall2 (chosen m) rem ms ->
  Forall2 (fun hm l => In hm l) ms (map (percc_of enum H) rem) /\
  NoDup (map fst ms) /\
  ForallOrdPairs (fun a b => forall p, In p (keys a) -> ~ In p (keys b)) ms.
Proof.
  intros Hm Hsep rem ms Hnd Hrem HF. induction HF as [|pc hm rem ms Hc HF IH].
  - simpl. split; [constructor|]. split; constructor.
  - inversion Hnd as [|? ? Hnot Hnd']; subst.
    destruct IH as (F1 & F2 & F3); auto; [intros pc' I; apply Hrem; right; exact I|].
    assert (Ipc : In pc (comps P)) by (apply Hrem; left; reflexivity).
    split; [constructor; [apply Hc|exact F1]|]. split.
    + simpl. constructor; [|exact F2]. intros I. apply in_map_iff in I. destruct I as (hm' & Ef & I).
      destruct (Forall2_in_r _ _ _ _ HF I) as (pc' & Ipc' & Hc').
      assert (pc = pc').
      { eapply (chosen_distinct m Hm Hsep pc pc' hm hm'); eauto. apply Hrem. right. exact Ipc'. }
      subst pc'. contradiction.
    + constructor; [|exact F3]. apply Forall_forall. intros hm' I p Ip Ip'.
      destruct (Forall2_in_r _ _ _ _ HF I) as (pc' & Ipc' & Hc').
      assert (pc = pc').
      { eapply (comps_disjoint_val P HwfP pc pc' p); eauto; [apply Hrem; right; exact Ipc'| |];
          eapply chosen_keys; eauto. }
      subst pc'. contradiction.
Qed.

(** ---------- the theorem about the combination step ---------- *)
Theorem bt_unl_exact : forall rem, Permutation rem (comps P) ->
  let U := bt_unl (map (percc_of enum H) rem) [] [] in
  (forall m, In m U -> is_mono H P m /\ separating H P m) /\
  (forall m, is_mono H P m -> separating H P m -> exists m', In m' U /\ Permutation m m').
Proof.
  intros rem Hp. cbv zeta.
  assert (Hnd : NoDup rem).
  { eapply Permutation_NoDup; [apply Permutation_sym; exact Hp|apply comps_NoDup; exact HwfP]. }
  assert (Hrem : forall pc, In pc rem -> In pc (comps P)) by (intros pc; apply Permutation_in; exact Hp).
  assert (Hsound : forall m, In m (bt_unl (map (percc_of enum H) rem) [] []) -> is_mono H P m /\ separating H P m).
  { intros m I. destruct (bt_unl_part rem [] [] m Hnd Hrem I) as (X & -> & (A & B & C & D & E) & S & _).
    rewrite app_nil_r. split; [|exact S]. split; [exact A|]. split; [|split; [exact C|split; [exact D|exact E]]].
    intros p. rewrite B. apply in_concat_comps. exact Hp. }
  split; [exact Hsound|].
  intros m Hm Hsep.
  destruct (Forall2_exists (chosen m) rem) as (ms & HF).
  { intros pc I. apply choose; auto. }
  destruct (chosen_lists m Hm Hsep rem ms Hnd Hrem HF) as (F1 & F2 & F3).
  pose proof (bt_unl_complete _ ms [] [] F1 F2) as Hin.
  specialize (Hin (fun _ _ I => I) (fun _ _ _ _ I => I) F3).
  exists (concat (rev (map snd ms)) ++ []). split; [exact Hin|].
  destruct (Hsound _ Hin) as [(A' & _) _].
  destruct Hm as (A & B & C & D & E).
  apply NoDup_Permutation; [eapply NoDup_map_inv; exact A|eapply NoDup_map_inv; exact A'|].
  intros [p h]. rewrite app_nil_r, in_concat. split.
  - intros I. assert (Ip : In p (node_ids P)) by (apply B; apply in_map_fst; eauto).
    destruct (comps_cover P HwfP p Ip) as (pc & Ipc & Ippc).
    apply (Permutation_in _ (Permutation_sym Hp)) in Ipc.
    destruct (Forall2_in_l _ _ _ _ HF Ipc) as (hm & Ihm & (_ & Hperm & _)).
    exists (snd hm). split; [rewrite <- in_rev; apply in_map; exact Ihm|].
    apply (Permutation_in _ Hperm). apply in_restrict. auto.
  - intros (mi & Imi & I). rewrite <- in_rev in Imi. apply in_map_iff in Imi. destruct Imi as (hm & <- & Ihm).
    destruct (Forall2_in_r _ _ _ _ HF Ihm) as (pc & _ & (_ & Hperm & _)).
    apply (Permutation_in _ (Permutation_sym Hperm)) in I. apply in_restrict in I. tauto.
Qed.

(** ---------- the limit-free component-aware result ---------- *)
Lemma no_pattern_nodes : comps P = [] -> node_ids P = [].
Proof.
  intros E. destruct (node_ids P) as [|p l] eqn:En; [reflexivity|].
  destruct (comps_cover P HwfP p) as (c & Ic & _); [rewrite En; left; reflexivity|].
  rewrite E in Ic. destruct Ic.
Qed.

Theorem comp_unl_spec strict :
  let hcc := length (comps H) in
  let pcc := length (comps P) in
  let U := comp_unl enum strict H P in
  if (0 <? pcc) && (pcc <? hcc) && strict then U = []
  else if hcc <? pcc then
    (forall m, In m U -> is_mono H P m) /\
    (forall m, is_mono H P m -> exists m', In m' U /\ Permutation m m')
  else
    (forall m, In m U -> is_mono H P m /\ separating H P m) /\
    (forall m, is_mono H P m -> separating H P m -> exists m', In m' U /\ Permutation m m').
Proof.
  cbv zeta. unfold comp_unl.
  destruct (length (comps P) =? 0) eqn:E0.
  - apply Nat.eqb_eq in E0. rewrite E0. simpl.
    assert (Ec : comps P = []) by (destruct (comps P); [reflexivity|discriminate]).
    pose proof (no_pattern_nodes Ec) as En.
    assert (Hnil : is_mono H P []).
    { split; [constructor|]. split; [intros p; rewrite En; simpl; tauto|]. split; [constructor|].
      split; [intros ? ? []|intros ? ? ? ? ? []]. }
    split.
    + intros m [<-|[]]. split; [exact Hnil|intros ? ? ? ? []].
    + intros m (_ & B & _) _. exists []. split; [left; reflexivity|].
      destruct m as [|[p h] m]; [constructor|]. exfalso. rewrite En in B. apply (B p). left. reflexivity.
  - apply Nat.eqb_neq in E0. destruct (0 <? length (comps P)) eqn:Epos; [|apply Nat.ltb_ge in Epos; lia].
    cbn [andb]. destruct (length (comps H) <? length (comps P)) eqn:E1.
    + assert (E2 : length (comps P) <? length (comps H) = false).
      { apply Nat.ltb_lt in E1. apply Nat.ltb_ge. lia. }
      rewrite E2. cbn [andb]. destruct (proj1 Hor) as (S1 & S2 & _). split; assumption.
    + destruct ((length (comps P) <? length (comps H)) && strict); [reflexivity|].
      destruct (Permutation_map_inv _ _ (sort_len_perm (map (percc_of enum H) (comps P)))) as (rem & Er & Hp).
      rewrite Er. apply bt_unl_exact. apply Permutation_sym. exact Hp.
Qed.
End Sem.
