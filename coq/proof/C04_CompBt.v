(** C04 — strategies comp / bt, the positive side: when do they regenerate the reaction?  comp: outside the strict_cc_count
    guard region, whenever the substrate has fewer components than the pattern (then comp is exhaustive) or the identity
    SEPARATES the pattern components; bt: in the guard region as well (comp is empty there, bt falls back to the exhaustive
    strategy).  With C04_comp_bt_refuted (identity not separating, comp's answer not empty) this is the whole picture.
    For any rule that describes the pair, with its pattern ([left_of]); C06's theorems comp_spec / bt_spec_unlimited / all_exact
    (proof/C06_Main.v, proof/C06_All.v). *)
From Coq Require Import List NArith ZArith Bool Lia Permutation.
From SK Require Import lib.LGraph model.C06_Model lib.C06_Spec proof.C06_All proof.C06_Comp proof.C06_Main proof.C11_Dedup model.C03_Model
                       model.C04_Model model.C04_Reactor proof.C03_Proof proof.C03_Glue proof.C04_Glue proof.C04_Template proof.C04_Proof
                       proof.C04_Engine proof.C04_DefaultChain.
From SK Require Import proof.C06_Comps proof.C04_Default proof.C04_DefaultProof proof.C04_Explicit.
Import ListNotations.
Local Open Scope Z_scope.

Section CompBt.
  Variable enum : list N -> list N -> list C06_Model.mapping.
  Variables (A B : hostg) (rc : its) (l r : molg).
  Hypothesis PW : pair_wf A B.
  Hypothesis D : describes A B rc.
  Hypothesis LO : left_of rc l.
  Hypothesis Hf : has_XH l = false.
  Hypothesis Hnn : forallb (fun p => 0 <=? m_hc (snd p)) (gnodes l) = true.
  Let Hh := tr_host A.
  Let Pp := tr_pat l.
  Hypothesis HwfH : gwf Hh.
  Hypothesis HwfP : gwf Pp.
  (** C06's contract for every VF2 call the component-aware strategy can make (whole graphs, pattern component x host component) *)
  Hypothesis Hor : oracle_ok enum Hh Pp.
  Let hcc := length (comps Hh).
  Let pcc := length (comps Pp).
  Let idm := id_map (node_ids l).

  Lemma id_mono : is_mono Hh Pp idm.
  Proof.
    assert (Nl : NoDup (node_ids l)) by (rewrite (lo_ids _ _ LO); exact (wf_rc_nodup rc (d_wf _ _ _ D))).
    apply (match_is_mono A l idm Nl).
    - exact (counts_nonneg _ Hnn).
    - exact (any_identity_match A B rc l D LO).
  Qed.

  (** what the theorems conclude, for the options [o]: the engine answers, every kept mapping is a monomorphism (needed for
      the _explicit_h stage) and among the kept mappings there is one whose glued ITS decomposes to the pair *)
  Definition regenerates_sound (o : ropts) : Prop :=
    exists ms y T, compute_mappings (api_engine enum) o A (rc, l, r) = Some ms /\ (forall m, In m ms -> is_mono Hh Pp m) /\ In y ms /\
                   glue A rc y = Some T /\ regen_exact T A B = true.

  Lemma regen_of_raw (o : ropts) (raw : list C03_Model.mapping) :
    api_engine enum (o_strategy o) (o_thr o) (o_pref o) Hh Pp = Result raw ->
    (forall m, In m raw -> is_mono Hh Pp m) -> (exists m0, In m0 raw /\ Permutation idm m0) -> regenerates_sound o.
  Proof.
    intros Er Hs Hi. destruct (raw_chain A B rc l raw PW D LO Hs Hi) as (y & T & Iy & ET & ER).
    exists (C11_Model.prune (fun m : C03_Model.mapping => m) (rule_graph rc) raw), y, T.
    split; [|split; [intros m0 I0; apply Hs; exact (subseq_in _ _ m0 (prune_subseq C03_Model.mapping (fun m => m) (rule_graph rc) raw) I0)|auto]]. unfold compute_mappings. cbn [fst snd]. unfold pattern_of. rewrite Hf. fold Hh. fold Pp. rewrite Er. reflexivity.
  Qed.

  Definition regenerates_with (o : ropts) : Prop :=
    exists ms y T, compute_mappings (api_engine enum) o A (rc, l, r) = Some ms /\ In y ms /\
                   glue A rc y = Some T /\ regen_exact T A B = true.
  Lemma sound_with (o : ropts) : regenerates_sound o -> regenerates_with o.
  Proof. intros (ms & y & T & Em & _ & R). exists ms, y, T. exact (conj Em R). Qed.

  (** the threshold bound is explicit (C06's [comp_bound]: the largest intermediate list of the component-aware search), so the
      theorems hold for any embed_threshold, the default None = 5000 included *)
  Lemma comp_find_at (T : N) : (comp_bound enum true Hh Pp <= T)%N ->
    C06_Model.find enum (Cfg 1 0 T true false) Hh Pp = comp_unl enum true Hh Pp.
  Proof. intros HT. exact (find_comp_unlimited enum T true Hh Pp HT). Qed.

  Theorem comp_regenerates_at (o : ropts) :
    (0 <? pcc)%nat && (pcc <? hcc)%nat = false ->
    ((hcc <? pcc)%nat = true \/ separating Hh Pp idm) ->
    o_strategy o = SMember 1%N -> o_pref o = false ->
    (comp_bound enum true Hh Pp <= dflt DEFAULT_THRESHOLD (o_thr o))%N ->
    regenerates_sound o.
  Proof.
    intros NG Hcase Es Ep Hb. set (T := dflt DEFAULT_THRESHOLD (o_thr o)) in *.
    destruct (comp_spec enum true Hh Pp HwfH HwfP Hor) as (T0 & HT0).
    set (Tm := N.max T0 (comp_bound enum true Hh Pp)).
    assert (H0 : (T0 <= Tm)%N) by (unfold Tm; lia). assert (H1 : (comp_bound enum true Hh Pp <= Tm)%N) by (unfold Tm; lia).
    specialize (HT0 Tm H0). cbv zeta in HT0. fold hcc in HT0. fold pcc in HT0. destruct HT0 as [_ HT0].
    rewrite (comp_find_at Tm H1), <- (comp_find_at T Hb) in HT0.
    rewrite NG in HT0. cbn [andb] in HT0.
    apply (regen_of_raw o (C06_Model.find enum (Cfg 1 0 T true false) Hh Pp)).
    - rewrite Es, Ep. reflexivity.
    - destruct (hcc <? pcc)%nat; [exact (proj1 HT0)|]. intros m I. exact (proj1 (proj1 HT0 m I)).
    - destruct (hcc <? pcc)%nat eqn:E.
      + exact (proj2 HT0 idm id_mono).
      + destruct Hcase as [Hc|Hc]; [discriminate|]. exact (proj2 HT0 idm id_mono Hc).
  Qed.

  Theorem bt_regenerates_at (o : ropts) :
    ((0 <? pcc)%nat && (pcc <? hcc)%nat = true \/ (hcc <? pcc)%nat = true \/ separating Hh Pp idm) ->
    o_strategy o = SMember 2%N -> o_pref o = false ->
    (N.max (comp_bound enum true Hh Pp) (lenN (enum (node_ids Hh) (node_ids Pp))) <= dflt DEFAULT_THRESHOLD (o_thr o))%N ->
    regenerates_sound o.
  Proof.
    intros Hcase Es Ep Hb. set (T := dflt DEFAULT_THRESHOLD (o_thr o)) in *.
    assert (Hb1 : (comp_bound enum true Hh Pp <= T)%N) by lia. assert (Hb2 : (lenN (enum (node_ids Hh) (node_ids Pp)) <= T)%N) by lia.
    destruct (comp_spec enum true Hh Pp HwfH HwfP Hor) as (T1 & HT1).
    destruct (bt_spec_unlimited enum true Hh Pp) as (T2 & HT2).
    set (Tm := N.max (N.max T1 T2) T).
    assert (G1 : (T1 <= Tm)%N) by (unfold Tm; lia). assert (G2 : (T2 <= Tm)%N) by (unfold Tm; lia).
    assert (G3 : (comp_bound enum true Hh Pp <= Tm)%N) by (unfold Tm; lia). assert (G4 : (lenN (enum (node_ids Hh) (node_ids Pp)) <= Tm)%N) by (unfold Tm; lia).
    specialize (HT1 Tm G1). specialize (HT2 Tm G2). cbv zeta in HT1. fold hcc in HT1. fold pcc in HT1. destruct HT1 as [_ HT1].
    (* every quantity at Tm is the quantity at T *)
    assert (Ebt : C06_Model.find enum (Cfg 2 0 T true false) Hh Pp = C06_Model.find enum (Cfg 2 0 Tm true false) Hh Pp).
    { rewrite (find_bt_unlimited enum T true Hh Pp Hb1 Hb2), (find_bt_unlimited enum Tm true Hh Pp G3 G4). reflexivity. }
    assert (Eall : C06_Model.find enum (Cfg 0 0 Tm true false) Hh Pp = C06_Model.find enum (Cfg 0 0 T true false) Hh Pp).
    { rewrite (find_all_unlimited enum Tm true Hh Pp G4), (find_all_unlimited enum T true Hh Pp Hb2). reflexivity. }
    rewrite (comp_find_at Tm G3), <- (comp_find_at T Hb1) in HT1, HT2. rewrite Eall in HT2.
    destruct (all_exact enum T true Hh Pp (proj1 Hor) Hb2) as (As & Ac & _).
    apply (regen_of_raw o (C06_Model.find enum (Cfg 2 0 T true false) Hh Pp)).
    - rewrite Es, Ep. reflexivity.
    - rewrite Ebt, HT2. destruct ((0 <? pcc)%nat && (pcc <? hcc)%nat) eqn:EG; cbn [andb] in HT1.
      + rewrite HT1. exact As.
      + destruct (C06_Model.find enum (Cfg 1 0 T true false) Hh Pp) as [|x0 xs] eqn:E1; [exact As|].
        destruct (hcc <? pcc)%nat; [exact (proj1 HT1)|]. intros m I. exact (proj1 (proj1 HT1 m I)).
    - rewrite Ebt, HT2. destruct ((0 <? pcc)%nat && (pcc <? hcc)%nat) eqn:EG; cbn [andb] in HT1.
      + rewrite HT1. exact (Ac idm id_mono).
      + assert (Hin : exists m0, In m0 (C06_Model.find enum (Cfg 1 0 T true false) Hh Pp) /\ Permutation idm m0).
        { destruct (hcc <? pcc)%nat eqn:E.
          - exact (proj2 HT1 idm id_mono).
          - destruct Hcase as [Hc|[Hc|Hc]]; [discriminate|discriminate|]. exact (proj2 HT1 idm id_mono Hc). }
        destruct (C06_Model.find enum (Cfg 1 0 T true false) Hh Pp) as [|x0 xs] eqn:E1; [destruct Hin as (m0 & [] & _)|exact Hin].
  Qed.

  (** hence from some threshold on: strategy comp (strict_cc_count at its default) outside the guard region, if the substrate
      has fewer components than the pattern or the identity separates the pattern components *)
  Theorem comp_regenerates :
    (0 <? pcc)%nat && (pcc <? hcc)%nat = false ->
    ((hcc <? pcc)%nat = true \/ separating Hh Pp idm) ->
    exists T0 : N, forall (T : N) (o : ropts), (T0 <= T)%N ->
      o_strategy o = SMember 1%N -> o_thr o = Some T -> o_pref o = false -> regenerates_with o.
  Proof.
    intros NG Hcase. exists (comp_bound enum true Hh Pp). intros T o HT Es Et Ep.
    apply sound_with, (comp_regenerates_at o NG Hcase Es Ep). rewrite Et. exact HT.
  Qed.
  (** strategy bt: additionally inside the guard region (comp returns nothing there and bt falls back to the exhaustive strategy) *)
  Theorem bt_regenerates :
    ((0 <? pcc)%nat && (pcc <? hcc)%nat = true \/ (hcc <? pcc)%nat = true \/ separating Hh Pp idm) ->
    exists T0 : N, forall (T : N) (o : ropts), (T0 <= T)%N ->
      o_strategy o = SMember 2%N -> o_thr o = Some T -> o_pref o = false -> regenerates_with o.
  Proof.
    intros Hcase. exists (N.max (comp_bound enum true Hh Pp) (lenN (enum (node_ids Hh) (node_ids Pp)))). intros T o HT Es Et Ep.
    apply sound_with, (bt_regenerates_at o Hcase Es Ep). rewrite Et. exact HT.
  Qed.
End CompBt.

(** the implicit-mode own template with its pattern is an instance: the pattern is the decomposed reactant side *)
(** * the premise [separating] for the identity, as the boolean the correspondence evaluates on every case *)
Lemma same_compb_spec (g : C06_Model.graph) x y : gwf g -> In x (node_ids g) -> (same_compb g x y = true <-> gconn g x y).
Proof.
  intros Hg Ix. unfold same_compb, same_in. rewrite existsb_exists. split.
  - intros (c & Ic & E). apply andb_prop in E. destruct E as [E1 E2]. apply mem_spec in E1. apply mem_spec in E2.
    destruct (comps_class g Hg c Ic) as (_ & _ & _ & Hc). exact (proj1 (Hc x y E1) E2).
  - intros Hxy. destruct (comps_cover g Hg x Ix) as (c & Ic & Ixc). exists c. split; [exact Ic|].
    destruct (comps_class g Hg c Ic) as (_ & _ & _ & Hc). apply andb_true_intro. split; apply mem_spec; [exact Ixc|exact (proj2 (Hc x y Ixc) Hxy)].
Qed.
Lemma same_in_cut (cs : list (list N)) (ps : list N) x y : In x ps -> In y ps ->
  same_in (filter (fun c => match c with [] => false | _ => true end) (map (filter (fun z => mem z ps)) cs)) x y = same_in cs x y.
Proof.
  intros Ix Iy. unfold same_in. induction cs as [|c r IH]; [reflexivity|]. cbn [map filter existsb].
  assert (E : mem x (filter (fun z => mem z ps) c) && mem y (filter (fun z => mem z ps) c) = mem x c && mem y c).
  { assert (K : forall z, In z ps -> mem z (filter (fun w => mem w ps) c) = mem z c).
    { intros z Iz. destruct (mem z c) eqn:E1.
      - apply mem_spec. apply filter_In. split; [apply mem_spec; exact E1|apply mem_spec; exact Iz].
      - destruct (mem z (filter (fun w => mem w ps) c)) eqn:E2; [|reflexivity]. apply mem_spec in E2. apply filter_In in E2.
        destruct E2 as [E2 _]. apply mem_spec in E2. congruence. }
    rewrite (K x Ix), (K y Iy). reflexivity. }
  destruct (filter (fun z => mem z ps) c) as [|z0 zs] eqn:Ef.
  - rewrite <- IH. simpl in E. rewrite <- E. reflexivity.
  - cbn [existsb]. rewrite E, IH. reflexivity.
Qed.
Theorem id_separatingb_sound (H P : C06_Model.graph) : gwf H -> gwf P -> incl (node_ids P) (node_ids H) ->
  id_separatingb H P = true -> separating H P (id_map (node_ids P)).
Proof.
  intros HH HP Hinc Hb p h p' h' I I' Hc.
  assert (K : forall q k, In (q, k) (id_map (node_ids P)) -> k = q /\ In q (node_ids P)).
  { intros q k J. unfold id_map in J. apply in_map_iff in J. destruct J as (n & E & In_). inversion E; subst. auto. }
  destruct (K p h I) as [-> Ip]. destruct (K p' h' I') as [-> Ip'].
  unfold id_separatingb in Hb. cbv zeta in Hb. eapply forallb_elim in Hb; [|exact Ip]. eapply forallb_elim in Hb; [|exact Ip'].
  rewrite (same_in_cut (comps H) (node_ids P) p p' Ip Ip') in Hb.
  apply (same_compb_spec P p p' HP Ip). apply (proj2 (same_compb_spec H p p' HH (Hinc p Ip))) in Hc.
  unfold same_compb in Hc |- *. rewrite Hc in Hb. exact Hb.
Qed.

(** * the reaction's own templates *)
Section OwnImplicit.
  Variable enum : list N -> list N -> list C06_Model.mapping.
  Variables (core invert : bool) (G H : hostg).
  Hypothesis W : pair_wfb G H = true.
  Hypothesis NH : no_explicit_H G = true.
  Hypothesis CC : core = true -> centre_carries (its_construct G H) = true.
  Let A := if invert then H else G.
  Let B := if invert then G else H.
  Let tpl := template core invert G H.
  Let l := dec_side iG eG tpl.
  Let r := dec_side iH eH tpl.
  Let D : describes A B tpl := template_describes core invert G H W NH CC.
  Let PW : pair_wf A B := pair_AB core invert G H W.


  Lemma own_gwf_host : gwf (tr_host A).
  Proof.
    apply gwf_tr_host; [exact (pw_A _ _ PW)|]. destruct (pair_wfb_sound G H W) as (_ & CG & CH). unfold A. destruct invert; assumption.
  Qed.
  Lemma own_gwf_pat : gwf (tr_pat l).
  Proof. exact (gwf_tr_pat_describes A B tpl l D (own_left_of tpl (d_wf _ _ _ D))). Qed.

  Lemma own_sep : id_separatingb (tr_host A) (tr_pat l) = true -> separating (tr_host A) (tr_pat l) (id_map (node_ids l)).
  Proof.
    intros Hc. rewrite <- tr_pat_ids. apply id_separatingb_sound; [exact own_gwf_host|exact own_gwf_pat| |exact Hc].
    intros n In_. rewrite tr_pat_ids in In_. rewrite tr_host_ids. unfold l, tpl in In_. rewrite (pattern_ids core invert G H) in In_. fold tpl in In_.
    destruct (in_ids_label tpl n In_) as [a Ea]. destruct (d_nodes _ _ _ D n a (assoc_in n (gnodes tpl) Ea)) as (x & _ & Ex & _).
    exact (label_some_in A n x Ex).
  Qed.

  Theorem own_comp_implicit :
    forallb (fun p => 0 <=? m_hc (snd p)) (gnodes l) = true ->
    oracle_ok enum (tr_host A) (tr_pat l) ->
    (0 <? length (comps (tr_pat l)))%nat && (length (comps (tr_pat l)) <? length (comps (tr_host A)))%nat = false ->
    ((length (comps (tr_host A)) <? length (comps (tr_pat l)))%nat = true \/ id_separatingb (tr_host A) (tr_pat l) = true) ->
    exists T0 : N, forall (T : N) (o : ropts), (T0 <= T)%N ->
      o_strategy o = SMember 1%N -> o_thr o = Some T -> o_pref o = false -> regenerates_with enum A B tpl l r o.
  Proof.
    intros Hnn Hor NG Hc. pose proof own_gwf_host as GH. pose proof own_gwf_pat as GP.
    apply (comp_regenerates enum A B tpl l r PW D (own_left_of tpl (d_wf _ _ _ D)) (own_no_XH core invert G H W NH) Hnn GH GP Hor NG).
    destruct Hc as [Hc|Hc]; [left; exact Hc|right; exact (own_sep Hc)].
  Qed.

  Theorem own_bt_implicit :
    forallb (fun p => 0 <=? m_hc (snd p)) (gnodes l) = true ->
    oracle_ok enum (tr_host A) (tr_pat l) ->
    ((0 <? length (comps (tr_pat l)))%nat && (length (comps (tr_pat l)) <? length (comps (tr_host A)))%nat = true \/
     (length (comps (tr_host A)) <? length (comps (tr_pat l)))%nat = true \/ id_separatingb (tr_host A) (tr_pat l) = true) ->
    exists T0 : N, forall (T : N) (o : ropts), (T0 <= T)%N ->
      o_strategy o = SMember 2%N -> o_thr o = Some T -> o_pref o = false -> regenerates_with enum A B tpl l r o.
  Proof.
    intros Hnn Hor Hc. pose proof own_gwf_host as GH. pose proof own_gwf_pat as GP.
    apply (bt_regenerates enum A B tpl l r PW D (own_left_of tpl (d_wf _ _ _ D)) (own_no_XH core invert G H W NH) Hnn GH GP Hor).
    destruct Hc as [Hc|[Hc|Hc]]; [left; exact Hc|right; left; exact Hc|right; right; exact (own_sep Hc)].
  Qed.
End OwnImplicit.

Section OwnDefault.
  Variable enum : list N -> list N -> list C06_Model.mapping.
  Variables (core invert : bool) (G H : hostg).
  Hypothesis W : pair_wfb G H = true.
  Hypothesis ME : mode_E G H = true.
  Let A := if invert then H else G.
  Let B := if invert then G else H.
  Hypothesis OK : default_okb A B (template core invert G H) = true.
  Hypothesis CC : core = true -> centre_carries (its_construct G H) = true.
  Let A' := substrate invert G H.
  Let B' := h_to_implicit_host B.

  Lemma default_pat_in_host (rc : its) (l r : molg) : rule_of core invert G H = Some (rc, l, r) ->
    incl (node_ids (tr_pat l)) (node_ids (tr_host A')).
  Proof.
    intros Er. destruct (default_facts core invert G H W ME OK CC rc l r Er) as (_ & D' & LO & _).
    intros n In_. rewrite tr_pat_ids in In_. rewrite tr_host_ids. rewrite (lo_ids _ _ LO) in In_.
    destruct (in_ids_label rc n In_) as [a Ea]. destruct (d_nodes _ _ _ D' n a (assoc_in n (gnodes rc) Ea)) as (x & _ & Ex & _).
    exact (label_some_in A' n x Ex).
  Qed.

  Lemma default_gwf_host : gwf (tr_host A').
  Proof.
    pose proof (pair_AB' core invert G H W OK) as PW. destruct (closed_AB core invert G H W OK) as [CA _]. fold A in CA.
    destruct (default_okb_foldable A B _ PW OK) as [FA _].
    destruct (fold_host_spec A (wf_host_nodup A (pw_A _ _ PW)) FA) as (_ & _ & FAA).
    unfold A', substrate. fold A. apply gwf_tr_host; [exact (folded_wf A _ _ FAA (pw_A _ _ PW))|exact (folded_closed A _ _ FAA CA)].
  Qed.

  Lemma default_sep (rc : its) (l r : molg) : rule_of core invert G H = Some (rc, l, r) ->
    id_separatingb (tr_host A') (tr_pat l) = true -> separating (tr_host A') (tr_pat l) (id_map (node_ids l)).
  Proof.
    intros Er Hc. destruct (default_facts core invert G H W ME OK CC rc l r Er) as (_ & D' & LO & _).
    rewrite <- tr_pat_ids.
    exact (id_separatingb_sound _ _ default_gwf_host (gwf_tr_pat_describes A' B' rc l D' LO) (default_pat_in_host rc l r Er) Hc).
  Qed.

  Theorem own_comp_default (rc : its) (l r : molg) : rule_of core invert G H = Some (rc, l, r) ->
    forallb (fun p => 0 <=? m_hc (snd p)) (gnodes l) = true ->
    oracle_ok enum (tr_host A') (tr_pat l) ->
    (0 <? length (comps (tr_pat l)))%nat && (length (comps (tr_pat l)) <? length (comps (tr_host A')))%nat = false ->
    ((length (comps (tr_host A')) <? length (comps (tr_pat l)))%nat = true \/ id_separatingb (tr_host A') (tr_pat l) = true) ->
    exists T0 : N, forall (T : N) (o : ropts), (T0 <= T)%N ->
      o_strategy o = SMember 1%N -> o_thr o = Some T -> o_pref o = false -> regenerates_with enum A' B' rc l r o.
  Proof.
    intros Er Hnn Hor NG Hc. destruct (default_facts core invert G H W ME OK CC rc l r Er) as (PW' & D' & LO & Hf).
    pose proof default_gwf_host as GH. pose proof (gwf_tr_pat_describes A' B' rc l D' LO) as GP.
    apply (comp_regenerates enum A' B' rc l r PW' D' LO Hf Hnn GH GP Hor NG).
    destruct Hc as [Hc|Hc]; [left; exact Hc|right; exact (default_sep rc l r Er Hc)].
  Qed.

  Theorem own_bt_default (rc : its) (l r : molg) : rule_of core invert G H = Some (rc, l, r) ->
    forallb (fun p => 0 <=? m_hc (snd p)) (gnodes l) = true ->
    oracle_ok enum (tr_host A') (tr_pat l) ->
    ((0 <? length (comps (tr_pat l)))%nat && (length (comps (tr_pat l)) <? length (comps (tr_host A')))%nat = true \/
     (length (comps (tr_host A')) <? length (comps (tr_pat l)))%nat = true \/ id_separatingb (tr_host A') (tr_pat l) = true) ->
    exists T0 : N, forall (T : N) (o : ropts), (T0 <= T)%N ->
      o_strategy o = SMember 2%N -> o_thr o = Some T -> o_pref o = false -> regenerates_with enum A' B' rc l r o.
  Proof.
    intros Er Hnn Hor Hc. destruct (default_facts core invert G H W ME OK CC rc l r Er) as (PW' & D' & LO & Hf).
    pose proof default_gwf_host as GH. pose proof (gwf_tr_pat_describes A' B' rc l D' LO) as GP.
    apply (bt_regenerates enum A' B' rc l r PW' D' LO Hf Hnn GH GP Hor).
    destruct Hc as [Hc|[Hc|Hc]]; [left; exact Hc|right; left; exact Hc|right; right; exact (default_sep rc l r Er Hc)].
  Qed.
End OwnDefault.
