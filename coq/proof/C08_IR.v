(** C08 — the search of nauty.py as an instance of the generic individualisation-refinement theory
    (lib/IRCore.v, lib/IRSearch.v), extended by the two things the code does differently from the library
    prototype: children are visited in the order [ord cell] (sorted by atom_map) and a leaf is
    [mkleaf pre cells] = prefix followed by the remaining nodes.  Proved here, generically:
      gsearch_is_fold : the pruned accumulator search = fold_left visit over the unpruned leaf enumeration
      leaves2_rel     : the leaf enumeration is equivariant under an injective relabelling (up to order)
      valid-partition invariants, fuel sufficiency, "every leaf is a permutation of the nodes". *)
From Coq Require Import List NArith ZArith Bool Arith Lia Permutation.
From SK Require Import lib.IRSortKeys lib.IRCore lib.IRSearch model.C08_Model.
From SK Require lib.IRInst.
Import ListNotations.

(* ---------------- mkleaf ---------------- *)
Lemma memN_spec x c : memN x c = true <-> In x c.
Proof.
  unfold IRInst.memN. rewrite existsb_exists. split.
  - intros (y & I & E). apply N.eqb_eq in E. subst. auto.
  - intros I. exists x. split; auto. apply N.eqb_refl.
Qed.
Lemma memN_map pi (pi_inj : forall x y : N, pi x = pi y -> x = y) x c : memN (pi x) (map pi c) = memN x c.
Proof.
  apply eq_true_iff_eq. rewrite !memN_spec, in_map_iff. split.
  - intros (y & E & I). apply pi_inj in E. subst. auto.
  - intros I. exists x. auto.
Qed.
Lemma mkleaf_map pi (pi_inj : forall x y : N, pi x = pi y -> x = y) pre c :
  mkleaf (map pi pre) (map pi c) = map pi (mkleaf pre c).
Proof.
  unfold mkleaf. rewrite map_app. f_equal.
  induction c as [|x c IH]; simpl; auto.
  rewrite (memN_map pi pi_inj). destruct (memN x pre); simpl; rewrite IH; auto.
Qed.

(* ---------------- the generic search with ordered children ---------------- *)
Section Gen.
Variable S : Type.
Variable sleb : S -> S -> bool.
Variable sig : partition -> N -> S.
Variable rf : nat.
Variable ord : cell -> list N.

Fixpoint leaves2 (fuel : nat) (P : partition) (pre : list N) : list (list N) :=
  match fuel with
  | 0 => []
  | Datatypes.S f =>
      let P' := refine sleb sig rf P in
      match first_big P' with
      | None => [mkleaf pre (concat P')]
      | Some i => flat_map (fun v => leaves2 f (individualise P' i v) (pre ++ [v])) (ord (nth i P' []))
      end
  end.

Variable L : Type.
Variable leb : L -> L -> bool.
Hypothesis leb_total : forall a b, leb a b = true \/ leb b a = true.
Hypothesis leb_trans : forall a b c, leb a b = true -> leb b c = true -> leb a c = true.
Hypothesis leb_antisym : forall a b, leb a b = true -> leb b a = true -> a = b.
Variable label : list N -> L.
Variable partial : list N -> L.

Fixpoint gsearch (fuel : nat) (P : partition) (pre : list N) (a : acc L) : acc L :=
  match fuel with
  | 0 => a
  | Datatypes.S f =>
      let P' := refine sleb sig rf P in
      match first_big P' with
      | None => visit leb label a (mkleaf pre (concat P'))
      | Some i => fold_left (fun a v => if pruned leb partial a (pre ++ [v]) then a
                                        else gsearch f (individualise P' i v) (pre ++ [v]) a)
                            (ord (nth i P' [])) a
      end
  end.

Hypothesis partial_lb : forall fuel P pre p, pre <> [] -> In p (leaves2 fuel P pre) -> leb (partial pre) (label p) = true.

Theorem gsearch_is_fold fuel : forall P pre a,
  gsearch fuel P pre a = fold_left (visit leb label) (leaves2 fuel P pre) a.
Proof.
  induction fuel as [|f IH]; intros P pre a; simpl; auto.
  destruct (first_big (refine sleb sig rf P)) as [i|]; [|reflexivity].
  rewrite fold_left_flat_map. apply fold_left_ext_in. intros a' v _.
  destruct (pruned leb partial a' (pre ++ [v])) eqn:Ep; [|apply IH].
  unfold pruned in Ep. destruct (fst a') as [[bl bp]|] eqn:Ea; [|discriminate].
  symmetry. apply (fold_visit_noop leb leb_total leb_antisym) with (bl := bl) (bp := bp); [exact Ea|].
  intros p I. eapply (ltb_leb_trans leb leb_total leb_trans leb_antisym); [exact Ep|]. eapply partial_lb; [|exact I].
  destruct pre; discriminate.
Qed.
End Gen.

(* ---------------- equivariance of the leaf enumeration ---------------- *)
Section Equiv.
Variable S : Type.
Variable leb : S -> S -> bool.
Hypothesis leb_total : forall a b, leb a b = true \/ leb b a = true.
Hypothesis leb_trans : forall a b c, leb a b = true -> leb b c = true -> leb a c = true.
Hypothesis leb_antisym : forall a b, leb a b = true -> leb b a = true -> a = b.
Variable pi : N -> N.
Hypothesis pi_inj : forall x y, pi x = pi y -> x = y.
Variables sig1 sig2 : partition -> N -> S.
Hypothesis sig_rel : forall P P' v, partR pi P P' -> sig2 P' (pi v) = sig1 P v.
Variables ord1 ord2 : cell -> list N.
Hypothesis ord1_perm : forall c, Permutation (ord1 c) c.
Hypothesis ord2_perm : forall c, Permutation (ord2 c) c.
Variable rf : nat.

Theorem leaves2_rel fuel : forall P P' pre, partR pi P P' ->
  Permutation (map (map pi) (leaves2 _ leb sig1 rf ord1 fuel P pre)) (leaves2 _ leb sig2 rf ord2 fuel P' (map pi pre)).
Proof.
  induction fuel as [|f IH]; intros P P' pre HP; simpl; auto.
  pose proof (refine_rel leb leb_total leb_trans leb_antisym sig1 sig2 sig_rel rf HP) as HR.
  rewrite (first_big_rel HR).
  destruct (first_big (refine leb sig1 rf P)) as [i|] eqn:Efb.
  - rewrite map_flat_map.
    set (F' := fun v' => leaves2 _ leb sig2 rf ord2 f (individualise (refine leb sig2 rf P') i v') (map pi pre ++ [v'])).
    apply perm_trans with (flat_map (fun v => F' (pi v)) (ord1 (nth i (refine leb sig1 rf P) []))).
    + apply flat_map_perm_pointwise. intros v _. unfold F'.
      pose proof (IH _ _ (pre ++ [v]) (individualise_rel pi_inj i v HR)) as H. rewrite map_app in H. exact H.
    + rewrite <- (flat_map_map pi F'). apply Permutation_flat_map.
      assert (Hc : cellR pi (nth i (refine leb sig1 rf P) []) (nth i (refine leb sig2 rf P') [])).
      { apply (@Forall2_nth _ _ (cellR pi) [] [] i _ _ HR). unfold cellR. simpl. auto. }
      unfold cellR in Hc.
      eapply perm_trans; [apply Permutation_map; apply ord1_perm|].
      eapply perm_trans; [exact Hc|]. apply Permutation_sym, ord2_perm.
  - simpl. rewrite (discrete_concat HR Efb), (mkleaf_map pi pi_inj). auto.
Qed.
End Equiv.

(* ---------------- ordered partitions of the node set ---------------- *)
Section Valid.
Variable S : Type.
Variable leb : S -> S -> bool.
Hypothesis leb_total : forall a b, leb a b = true \/ leb b a = true.
Hypothesis leb_trans : forall a b c, leb a b = true -> leb b c = true -> leb a c = true.
Hypothesis leb_antisym : forall a b, leb a b = true -> leb b a = true -> a = b.
Variable sig : partition -> N -> S.

Lemma ssorted_NoDup l : ssorted leb l -> NoDup l.
Proof.
  induction 1 as [|x l Hs IH Hx]; constructor; auto.
  intro I. specialize (Hx _ I). rewrite (ltb_irrefl leb leb_total) in Hx. discriminate.
Qed.

Lemma groups_one (key : N -> S) (F : S -> list N) x ks :
  NoDup ks -> In (key x) ks ->
  Permutation (flat_map (fun k => if eqb leb (key x) k then x :: F k else F k) ks) (x :: flat_map F ks).
Proof.
  induction ks as [|k ks IH]; intros Hnd Hin; [contradiction|].
  inversion Hnd as [|? ? Hk Hnd']; subst. simpl.
  destruct (eqb leb (key x) k) eqn:E.
  - apply (eqb_eq leb leb_total leb_antisym) in E. subst k. simpl. apply perm_skip. apply Permutation_app_head.
    assert (H : forall ks', ~ In (key x) ks' ->
               flat_map (fun k => if eqb leb (key x) k then x :: F k else F k) ks' = flat_map F ks').
    { induction ks' as [|k' ks' IH']; simpl; intros Hn; auto.
      destruct (eqb leb (key x) k') eqn:E'.
      - apply (eqb_eq leb leb_total leb_antisym) in E'. exfalso. apply Hn. left. auto.
      - f_equal. apply IH'. intro I. apply Hn. right. auto. }
    rewrite H by auto. apply Permutation_refl.
  - destruct Hin as [->|Hin].
    + rewrite (proj2 (eqb_eq leb leb_total leb_antisym (key x) (key x)) eq_refl) in E. discriminate.
    + eapply perm_trans; [apply Permutation_app_head; apply IH; auto|].
      apply Permutation_sym. apply Permutation_middle.
Qed.

Lemma groups_perm (key : N -> S) c : forall ks, NoDup ks -> (forall v, In v c -> In (key v) ks) ->
  Permutation (flat_map (fun k => filter (fun v => eqb leb (key v) k) c) ks) c.
Proof.
  induction c as [|x c IH]; intros ks Hnd Hcov; simpl.
  - clear. induction ks; simpl; auto.
  - eapply perm_trans; [apply (groups_one key (fun k => filter (fun v => eqb leb (key v) k) c) x ks Hnd); apply Hcov; left; auto|].
    apply perm_skip. apply IH; auto. intros; apply Hcov; right; auto.
Qed.

Lemma concat_map_flat_map {X Y} (f : X -> list Y) l : concat (map f l) = flat_map f l.
Proof. induction l; simpl; auto. f_equal; auto. Qed.

Lemma split_cell_perm P c : Permutation (concat (split_cell leb sig P c)) c.
Proof.
  unfold split_cell. cbv zeta. destruct (length c <=? 1); [simpl; rewrite app_nil_r; auto|].
  destruct (length (keys leb sig P c) <=? 1); [simpl; rewrite app_nil_r; auto|].
  rewrite <- flat_map_concat_map. unfold group.
  apply (groups_perm (sig P)).
  - apply ssorted_NoDup. apply sort_dedup_sorted; auto.
  - intros v Hv. unfold keys. apply sort_dedup_in; auto. apply in_map. auto.
Qed.

Lemma split_cell_nonempty P c : c <> [] -> Forall (fun d => d <> []) (split_cell leb sig P c).
Proof.
  intros Hc. unfold split_cell. destruct (length c <=? 1); [constructor; auto|].
  destruct (length (keys leb sig P c) <=? 1); [constructor; auto|].
  apply Forall_forall. intros d Hd. apply in_map_iff in Hd. destruct Hd as (k & <- & Hk).
  unfold keys in Hk. apply sort_dedup_in in Hk; auto. apply in_map_iff in Hk. destruct Hk as (v & <- & Hv).
  unfold group. intro E.
  assert (I : In v (filter (fun v0 => eqb leb (sig P v0) (sig P v)) c)).
  { apply filter_In. split; auto. apply (eqb_eq leb leb_total leb_antisym). auto. }
  rewrite E in I. contradiction.
Qed.

Lemma split_cell_length P c : 1 <= length (split_cell leb sig P c).
Proof.
  unfold split_cell. cbv zeta. destruct (length c <=? 1); [simpl; lia|].
  destruct (length (keys leb sig P c) <=? 1) eqn:E; [simpl; lia|].
  rewrite map_length. apply Nat.leb_gt in E. lia.
Qed.

Lemma split_cell_single P x : split_cell leb sig P [x] = [[x]].
Proof. reflexivity. Qed.

Definition vpart (nodes : list N) (P : partition) : Prop :=
  Permutation (concat P) nodes /\ Forall (fun c => c <> []) P.

Lemma refine_step_concat P : Permutation (concat (refine_step leb sig P)) (concat P).
Proof.
  unfold refine_step. generalize P at 1 as Q. intros Q. induction P as [|c P IH]; simpl; auto.
  rewrite concat_app. apply Permutation_app; auto. apply split_cell_perm.
Qed.
Lemma refine_step_nonempty P : Forall (fun c => c <> []) P -> Forall (fun c => c <> []) (refine_step leb sig P).
Proof.
  unfold refine_step. generalize P at 2 as Q. intros Q. induction 1 as [|c P Hc HP IH]; simpl; auto.
  apply Forall_app. split; auto. apply split_cell_nonempty; auto.
Qed.
Lemma refine_step_length P : length P <= length (refine_step leb sig P).
Proof.
  unfold refine_step. generalize P at 2 as Q. intros Q. induction P as [|c P IH]; simpl; auto.
  rewrite app_length. pose proof (split_cell_length Q c). lia.
Qed.
Lemma refine_step_single P x : In [x] P -> In [x] (refine_step leb sig P).
Proof.
  intros H. unfold refine_step. apply in_flat_map. exists [x]. split; auto. left. auto.
Qed.

Lemma refine_vpart nodes fuel : forall P, vpart nodes P -> vpart nodes (refine leb sig fuel P).
Proof.
  induction fuel as [|f IH]; intros P HP; simpl; auto.
  assert (H1 : vpart nodes (refine_step leb sig P)).
  { destruct HP as [Hc Hn]. split; [eapply perm_trans; [apply refine_step_concat|auto]|apply refine_step_nonempty; auto]. }
  destruct (_ =? _); auto.
Qed.
Lemma refine_length fuel : forall P, length P <= length (refine leb sig fuel P).
Proof.
  induction fuel as [|f IH]; intros P; simpl; auto.
  pose proof (refine_step_length P). destruct (_ =? _); auto. specialize (IH (refine_step leb sig P)). lia.
Qed.
Lemma refine_single fuel x : forall P, In [x] P -> In [x] (refine leb sig fuel P).
Proof.
  induction fuel as [|f IH]; intros P H; simpl; auto.
  pose proof (refine_step_single P x H). destruct (_ =? _); auto.
Qed.
End Valid.

(* ---------------- individualisation ---------------- *)
Lemma first_big_spec P i : first_big P = Some i -> i < length P /\ 1 < length (nth i P []).
Proof.
  revert i. induction P as [|c P IH]; simpl; intros i H; [discriminate|].
  destruct (1 <? length c) eqn:E.
  - inversion H; subst. simpl. apply Nat.ltb_lt in E. lia.
  - destruct (first_big P) as [j|]; [|discriminate]. inversion H; subst. simpl.
    destruct (IH j eq_refl). lia.
Qed.

Lemma split_nth {X} (l : list X) i d : i < length l -> l = firstn i l ++ nth i l d :: skipn (Datatypes.S i) l.
Proof.
  revert i. induction l as [|x l IH]; simpl; intros i H; [lia|].
  destruct i as [|i]; simpl; auto. f_equal. apply IH. lia.
Qed.

Lemma rest_perm v c : NoDup c -> In v c -> Permutation (v :: rest v c) c.
Proof.
  intros Hnd Hin. apply NoDup_Permutation; auto.
  - constructor.
    + unfold rest. intro I. apply filter_In in I. destruct I as [_ I]. rewrite N.eqb_refl in I. discriminate.
    + unfold rest. apply NoDup_filter. auto.
  - intros x. simpl. unfold rest. rewrite filter_In. split.
    + intros [<-|[I _]]; auto.
    + intros I. destruct (N.eqb_spec x v) as [->|Hne]; [left; reflexivity|]. right. split; [exact I|].
      reflexivity.
Qed.

Lemma NoDup_app_l {X} (l1 l2 : list X) : NoDup (l1 ++ l2) -> NoDup l1.
Proof.
  induction l1 as [|x l1 IH]; simpl; intros H; [constructor|].
  inversion H; subst. constructor; auto. intro I. apply H2. apply in_or_app. auto.
Qed.
Lemma NoDup_app_r {X} (l1 l2 : list X) : NoDup (l1 ++ l2) -> NoDup l2.
Proof. induction l1 as [|x l1 IH]; simpl; intros H; auto. inversion H; auto. Qed.
Lemma NoDup_app_disj {X} (l1 l2 : list X) x : NoDup (l1 ++ l2) -> In x l1 -> In x l2 -> False.
Proof.
  induction l1 as [|y l1 IH]; simpl; intros H H1 H2; [contradiction|].
  inversion H; subst. destruct H1 as [->|H1]; [apply H4; apply in_or_app; auto|eauto].
Qed.

Lemma NoDup_app_intro {X} (l1 l2 : list X) : NoDup l1 -> NoDup l2 -> (forall x, In x l1 -> In x l2 -> False) -> NoDup (l1 ++ l2).
Proof.
  induction l1 as [|y l1 IH]; simpl; intros H1 H2 Hd; auto.
  inversion H1; subst. constructor.
  - intro I. apply in_app_or in I. destruct I as [I|I]; auto. apply (Hd y); auto.
  - apply IH; auto. intros x Hx1 Hx2. apply (Hd x); auto.
Qed.

Lemma NoDup_concat_cell (P : partition) c : NoDup (concat P) -> In c P -> NoDup c.
Proof.
  intros Hnd Hin. apply in_split in Hin. destruct Hin as (l1 & l2 & ->).
  rewrite concat_app in Hnd. simpl in Hnd. apply NoDup_app_r in Hnd. apply NoDup_app_l in Hnd. auto.
Qed.

Lemma individualise_props nodes P i v :
  NoDup nodes -> vpart nodes P -> first_big P = Some i -> In v (nth i P []) ->
  vpart nodes (individualise P i v) /\ length (individualise P i v) = Datatypes.S (length P).
Proof.
  intros Hnd [Hc Hne] Hfb Hv. destruct (first_big_spec P i Hfb) as [Hi Hbig].
  set (c := nth i P []) in *.
  assert (HP : P = firstn i P ++ c :: skipn (Datatypes.S i) P) by (apply split_nth; auto).
  assert (Hndc : NoDup c).
  { apply (NoDup_concat_cell P); [eapply Permutation_NoDup; [apply Permutation_sym; exact Hc|auto]|].
    rewrite HP. apply in_or_app. right. left. auto. }
  pose proof (rest_perm v c Hndc Hv) as Hr.
  assert (Hrne : rest v c <> []).
  { intro E. rewrite E in Hr. apply Permutation_length in Hr. simpl in Hr. lia. }
  unfold individualise. fold c.
  set (hd := firstn i P) in *. set (tl := skipn (Datatypes.S i) P) in *. clearbody hd tl.
  destruct (rest v c) as [|r0 rr] eqn:Er; [congruence|].
  split; [split|].
  - eapply perm_trans; [|exact Hc]. rewrite HP.
    rewrite !concat_app. apply Permutation_app_head. cbn [concat app]. rewrite app_nil_r.
    exact (Permutation_app_tail (concat tl) Hr).
  - rewrite HP in Hne. apply Forall_app in Hne. destruct Hne as [H1 H2]. inversion H2 as [|? ? Hcne Htl].
    apply Forall_app. split; auto. cbn [app]. constructor; [discriminate|]. constructor; [discriminate|]. exact Htl.
  - rewrite HP. repeat (rewrite app_length || cbn [length app]). unfold cell in *. lia.
Qed.

Lemma individualise_single P i v x : first_big P = Some i -> In [x] P -> In [x] (individualise P i v).
Proof.
  intros Hfb Hx. destruct (first_big_spec P i Hfb) as [Hi Hbig].
  rewrite (split_nth P i [] Hi) in Hx. unfold individualise.
  apply in_app_or in Hx. destruct Hx as [Hx|[Hx|Hx]].
  - apply in_or_app. left. auto.
  - rewrite Hx in Hbig. simpl in Hbig. lia.
  - rewrite !in_app_iff. right. right. right. exact Hx.
Qed.
Lemma individualise_new P i v : In [v] (individualise P i v).
Proof. unfold individualise. apply in_or_app. right. left. auto. Qed.

(* ---------------- leaves are permutations of the node set; fuel suffices ---------------- *)
Lemma in_concat_cell (P : partition) c x : In c P -> In x c -> In x (concat P).
Proof. intros H1 H2. apply in_concat. exists c. auto. Qed.

Lemma single_cell_unique (P : partition) x c : NoDup (concat P) -> In [x] P -> In c P -> In x c -> c = [x].
Proof.
  intros Hnd Hs Hc Hx. apply in_split in Hc. destruct Hc as (l1 & l2 & ->).
  rewrite concat_app in Hnd. simpl in Hnd.
  apply in_app_or in Hs. destruct Hs as [Hs|[Hs|Hs]]; auto.
  - exfalso. apply (NoDup_app_disj _ _ x Hnd).
    + apply (in_concat_cell l1 [x]); simpl; auto.
    + apply in_or_app. left. auto.
  - exfalso. apply NoDup_app_r in Hnd. apply (NoDup_app_disj _ _ x Hnd); auto.
    apply (in_concat_cell l2 [x]); simpl; auto.
Qed.

Lemma mkleaf_perm pre c : NoDup pre -> NoDup c -> incl pre c -> Permutation (mkleaf pre c) c.
Proof.
  intros Hp Hc Hi. unfold mkleaf. apply NoDup_Permutation; auto.
  - apply NoDup_app_intro; auto.
    + apply NoDup_filter. auto.
    + intros x H1 H2. apply filter_In in H2. destruct H2 as [_ H2].
      apply negb_true_iff in H2. apply (proj2 (memN_spec x pre)) in H1. congruence.
  - intros x. rewrite in_app_iff, filter_In. split.
    + intros [H|[H _]]; auto.
    + intros H. destruct (memN x pre) eqn:E; [left; apply memN_spec; auto|right; split; auto].
Qed.

Lemma vpart_length nodes P : vpart nodes P -> length P <= length nodes.
Proof.
  intros [Hc Hn]. rewrite <- (Permutation_length Hc). clear Hc.
  induction Hn as [|c P Hc HP IH]; simpl; auto. rewrite app_length.
  destruct c; [congruence|]. simpl. lia.
Qed.

Section LeafProps.
Variable S : Type.
Variable sleb : S -> S -> bool.
Hypothesis sleb_total : forall a b, sleb a b = true \/ sleb b a = true.
Hypothesis sleb_trans : forall a b c, sleb a b = true -> sleb b c = true -> sleb a c = true.
Hypothesis sleb_antisym : forall a b, sleb a b = true -> sleb b a = true -> a = b.
Variable sig : partition -> N -> S.
Variable rf : nat.
Variable ord : cell -> list N.
Hypothesis ord_perm : forall c, Permutation (ord c) c.
Variable nodes : list N.
Hypothesis nodes_nd : NoDup nodes.

Definition pre_ok (P : partition) (pre : list N) : Prop := NoDup pre /\ forall x, In x pre -> In [x] P.

Lemma vpart_nodup P : vpart nodes P -> NoDup (concat P).
Proof. intros [Hc _]. eapply Permutation_NoDup; [apply Permutation_sym; exact Hc|auto]. Qed.

Theorem leaves2_perm fuel : forall P pre p, vpart nodes P -> pre_ok P pre ->
  In p (leaves2 S sleb sig rf ord fuel P pre) -> Permutation p nodes.
Proof.
  induction fuel as [|f IH]; intros P pre p HP [Hnd Hpre] Hin; simpl in Hin; [contradiction|].
  pose proof (refine_vpart S sleb sleb_total sleb_trans sleb_antisym sig nodes rf P HP) as HP'.
  assert (Hpre' : forall x, In x pre -> In [x] (refine sleb sig rf P)) by (intros; apply refine_single; auto).
  destruct (first_big (refine sleb sig rf P)) as [i|] eqn:Efb.
  - apply in_flat_map in Hin. destruct Hin as (v & Hv & Hin).
    apply (Permutation_in _ (ord_perm _)) in Hv.
    destruct (individualise_props nodes _ i v nodes_nd HP' Efb Hv) as [HPi _].
    eapply IH; [exact HPi| |exact Hin]. split.
    + apply NoDup_app_intro; auto; [constructor; [intros []|constructor]|].
      intros x H1 [E0|[]]. subst v. destruct (first_big_spec _ _ Efb) as [Hi Hbig].
      assert (E : nth i (refine sleb sig rf P) [] = [x]).
      { apply (single_cell_unique (refine sleb sig rf P)); auto; [apply vpart_nodup; auto|apply nth_In; auto]. }
      rewrite E in Hbig. simpl in Hbig. lia.
    + intros x Hx. apply in_app_or in Hx. destruct Hx as [Hx|[<-|[]]].
      * apply individualise_single; auto.
      * apply individualise_new.
  - destruct Hin as [<-|[]]. eapply perm_trans; [|apply (proj1 HP')].
    apply mkleaf_perm; auto; [apply vpart_nodup; auto|].
    intros x Hx. apply (in_concat_cell _ [x]); simpl; auto.
Qed.

Lemma leaves2_prefix fuel : forall P pre p, In p (leaves2 S sleb sig rf ord fuel P pre) -> exists r, p = pre ++ r.
Proof.
  induction fuel as [|f IH]; intros P pre p Hin; simpl in Hin; [contradiction|].
  destruct (first_big (refine sleb sig rf P)) as [i|].
  - apply in_flat_map in Hin. destruct Hin as (v & _ & Hin). destruct (IH _ _ _ Hin) as (r & ->).
    exists (v :: r). rewrite <- app_assoc. reflexivity.
  - destruct Hin as [<-|[]]. unfold mkleaf. eauto.
Qed.

(* fuel sufficiency of the accumulator search *)
Variable L : Type.
Variable leb : L -> L -> bool.
Variable label : list N -> L.
Variable partial : list N -> L.

Lemma visit_some a p : fst (visit leb label a p) <> None.
Proof.
  unfold visit. destruct (fst a) as [[bl bp]|] eqn:E; simpl; [|discriminate].
  destruct (ltb leb (label p) bl); simpl; [discriminate|].
  destruct (eqb leb (label p) bl); simpl; rewrite ?E; discriminate.
Qed.

Lemma fold_some {X} (step : acc L -> X -> acc L) l :
  (forall a v, fst a <> None -> fst (step a v) <> None) -> forall a, fst a <> None -> fst (fold_left step l a) <> None.
Proof. intros H. induction l as [|v l IH]; simpl; auto. Qed.

Lemma gsearch_some fuel : forall P pre a, fst a <> None ->
  fst (gsearch S sleb sig rf ord L leb label partial fuel P pre a) <> None.
Proof.
  induction fuel as [|f IH]; intros P pre a Ha; simpl; auto.
  destruct (first_big (refine sleb sig rf P)) as [i|]; [|apply visit_some].
  apply fold_some; auto. intros a' v Ha'. destruct (pruned leb partial a' (pre ++ [v])); auto.
Qed.

Theorem gsearch_finds fuel : forall P pre a, vpart nodes P -> length nodes < fuel + length P ->
  fst (gsearch S sleb sig rf ord L leb label partial fuel P pre a) <> None.
Proof.
  induction fuel as [|f IH]; intros P pre a HP Hlen.
  - pose proof (vpart_length nodes P HP). simpl in Hlen. lia.
  - simpl.
    pose proof (refine_vpart S sleb sleb_total sleb_trans sleb_antisym sig nodes rf P HP) as HP'.
    pose proof (refine_length S sleb sig rf P) as Hl.
    destruct (first_big (refine sleb sig rf P)) as [i|] eqn:Efb; [|apply visit_some].
    destruct (first_big_spec _ _ Efb) as [Hi Hbig].
    set (c := nth i (refine sleb sig rf P) []) in *.
    pose proof (Permutation_length (ord_perm c)) as Hlo.
    destruct (ord c) as [|v l] eqn:Eo; [simpl in Hlo; lia|].
    simpl. apply fold_some.
    + intros a' w Ha'. destruct (pruned leb partial a' (pre ++ [w])); auto. apply gsearch_some. auto.
    + destruct (pruned leb partial a (pre ++ [v])) eqn:Ep.
      * unfold pruned in Ep. destruct (fst a); [discriminate|discriminate].
      * assert (Hv : In v c) by (apply (Permutation_in _ (ord_perm c)); rewrite Eo; left; auto).
        destruct (individualise_props nodes _ i v nodes_nd HP' Efb Hv) as [HPi Hli].
        apply IH; auto. rewrite Hli. lia.
Qed.
End LeafProps.

Print Assumptions gsearch_is_fold.
Print Assumptions leaves2_rel.
Print Assumptions leaves2_perm.
Print Assumptions gsearch_finds.
