(** C03 — the implicit-template mode end to end (forwards and backwards), hypotheses on the TEMPLATE, the SUBSTRATE and
    the MATCHER'S CONTRACT only: the rule is the template (the inverted template backwards), its left graph the template's
    reactant (product) side. *)
From Coq Require Import List NArith ZArith Bool.
From SK Require Import lib.Tok lib.LGraph model.C03_Model model.C03_Order model.C03_Reactor proof.C03_Proof proof.C03_Glue
                       proof.C03_Backward proof.C03_ReactorProof proof.C03_ReactorSpec proof.C03_Capstone.
Import ListNotations.
Local Open Scope Z_scope.

Lemma invert_edges_closedb T : edges_closedb T = true -> edges_closedb (invert_template T) = true.
Proof.
  unfold edges_closedb. intros H. rewrite forallb_forall in H. apply forallb_forall. intros [[u v] y] I.
  destruct (invert_edge_inv T u v y I) as (x & Ix & _). specialize (H _ Ix). cbn [fst snd] in *. rewrite invert_ids. exact H.
Qed.

Theorem its_list_implicit_end_to_end (invert : bool) inp tpl gs :
  let tpl' := if invert then invert_template tpl else tpl in
  i_rule inp = synrule tpl' false ->
  wf_rcb tpl = true -> edges_closedb tpl = true ->
  wf_hostb (i_host inp) = true -> forallb (call_okm (i_host inp) (fst (its_decompose tpl'))) (i_calls inp) = true ->
  spec_its inp = Some gs ->
  forall g, In g gs ->
    instance_of (i_host inp) tpl' g /\
    (balancedb tpl = true ->
       (forall e, elem_count e (fst (its_decompose g)) = elem_count e (snd (its_decompose g))) /\
       total_charge (fst (its_decompose g)) = total_charge (snd (its_decompose g))).
Proof.
  intros tpl' Ei Hw Hc Hwh Hcalls Hits g Ig.
  assert (Hw' : wf_rcb tpl' = true) by (unfold tpl'; destruct invert; [apply invert_wf|]; exact Hw).
  assert (Hc' : edges_closedb tpl' = true) by (unfold tpl'; destruct invert; [apply invert_edges_closedb|]; exact Hc).
  assert (Hb' : balancedb tpl' = balancedb tpl) by (unfold tpl'; destruct invert; [apply invert_balanced|reflexivity]).
  pose proof (wf_rc_nodupb tpl' Hw') as Hnd.
  rewrite (synrule_implicit tpl' Hnd) in Ei.
  assert (Hm : matcher_hyps_okb (i_rule inp) (i_host inp) (i_calls inp) = true).
  { rewrite Ei. unfold matcher_hyps_okb. rewrite Hwh, Hw', Hc', (left_of_rcb_dec tpl' (nodupb_NoDup _ Hnd)), Hcalls. reflexivity. }
  pose proof (its_list_sound_matcher inp tpl' _ _ gs Ei Hm Hits g Ig) as Hi. split; [exact Hi|].
  intros Hb. destruct Hi as (hb & m & T & tbl & _ & _ & _ & _ & _ & _ & _ & _ & _ & A4 & _). apply A4. rewrite Hb'. exact Hb.
Qed.
