(** C20 — caller-supplied graphs: the order in which the species nodes were inserted into the graph does not matter.
    _species_order sorts the nodes by label and hands out BOTH the sorted nodes and the sorted labels, so index i of the
    checked node set and index i of the reported label refer to the same species whatever the insertion order. *)
From Coq Require Import ZArith List Lia Permutation.
Import ListNotations.
From SK Require Import model.C20_Model proof.C20_Siphon.
Local Open Scope nat_scope.

(** two insertions with different labels commute, so the sort of a list with distinct labels does not depend on its order *)
Lemma insert_by_label_comm x y l : snd x <> snd y ->
  insert_by_label x (insert_by_label y l) = insert_by_label y (insert_by_label x l).
Proof.
  intros Hne. induction l as [|z l IH]; simpl.
  - destruct (Nat.ltb_spec (snd x) (snd y)), (Nat.ltb_spec (snd y) (snd x)); try reflexivity; lia.
  - destruct (Nat.ltb_spec (snd y) (snd z)) as [Hy|Hy], (Nat.ltb_spec (snd x) (snd z)) as [Hx|Hx]; simpl.
    + destruct (Nat.ltb_spec (snd x) (snd y)), (Nat.ltb_spec (snd y) (snd x)); try lia;
        rewrite (proj2 (Nat.ltb_lt _ _)) by assumption; reflexivity.
    + rewrite (proj2 (Nat.ltb_ge (snd x) (snd y))) by lia. simpl.
      now rewrite (proj2 (Nat.ltb_ge (snd x) (snd z))), (proj2 (Nat.ltb_lt (snd y) (snd z))) by assumption.
    + rewrite (proj2 (Nat.ltb_ge (snd y) (snd x))) by lia. simpl.
      now rewrite (proj2 (Nat.ltb_ge (snd y) (snd z))), (proj2 (Nat.ltb_lt (snd x) (snd z))) by assumption.
    + now rewrite (proj2 (Nat.ltb_ge (snd x) (snd z))), (proj2 (Nat.ltb_ge (snd y) (snd z))), IH by assumption.
Qed.

Lemma sort_by_label_perm l l' : Permutation l l' -> NoDup (map snd l) -> sort_by_label l = sort_by_label l'.
Proof.
  unfold sort_by_label. induction 1 as [|x l l' P IH|x y l|l l' l'' P1 IH1 P2 IH2]; intros ND; simpl.
  - reflexivity.
  - rewrite IH; [reflexivity|]. now inversion ND.
  - apply insert_by_label_comm. inversion ND as [|? ? Hy _]; subst. intros E. apply Hy. left. symmetry. exact E.
  - rewrite IH1, IH2; auto. apply (Permutation_NoDup (Permutation_map snd P1) ND).
Qed.

Lemma sort_species_order n order :
  Permutation order (seq 0 n) ->
  sort_by_label (map (fun i => (sp_node i, i)) order) = map (fun i => (sp_node i, i)) (seq 0 n).
Proof.
  intros P. rewrite <- (sort_sorted_seq sp_node n 0). apply sort_by_label_perm.
  - apply Permutation_map, P.
  - rewrite map_map. simpl. rewrite map_id. apply (Permutation_NoDup (Permutation_sym P)), seq_NoDup.
Qed.

(** the index predicates read the arcs only *)
Lemma touches_arcs G G' : g_arcs G = g_arcs G' -> forall S r ro, touches G S r ro = touches G' S r ro.
Proof. intros E S r ro. unfold touches, incident. now rewrite E. Qed.

Lemma closed_indices_arcs a b G G' : g_arcs G = g_arcs G' ->
  forall sns rn S, closed_indices a b G sns rn S = closed_indices a b G' sns rn S.
Proof.
  intros E sns rn S. unfold closed_indices. destruct S; [reflexivity|].
  induction rn as [|r rn IH]; cbn [forallb]; [reflexivity|]. now rewrite IH, !(touches_arcs G G' E).
Qed.

Lemma find_sets_ext pred G G' k :
  sort_by_label (g_species G') = sort_by_label (g_species G) -> g_reactions G' = g_reactions G ->
  split_ok G' = split_ok G -> (forall sns rn S, pred G' sns rn S = pred G sns rn S) ->
  find_sets pred G' k = find_sets pred G k.
Proof.
  intros Es Er Eok Ep. unfold find_sets, species_nodes_sorted, species_labels, candidates. rewrite Eok, Es, Er.
  destruct (split_ok G); [|reflexivity]. do 3 f_equal.
  apply flat_map_ext. intros j. apply filter_ext. intros S. apply Ep.
Qed.

Lemma main_species_insertion_order :
  forall (n : nat) (rs : list rxn) (order : list nat) (max_size : option nat),
  Permutation order (seq 0 n) ->
  let G := bipartite_of n rs in
  let G' := with_species_order order G in
  species_nodes_sorted G' = species_nodes_sorted G /\
  species_labels G' = species_labels G /\
  find_siphons G' max_size = find_siphons G max_size /\
  find_traps G' max_size = find_traps G max_size.
Proof.
  intros n rs order k P G G'.
  destruct order as [|o order'] eqn:Eo; [repeat split; reflexivity|].
  assert (Es : sort_by_label (g_species G') = sort_by_label (g_species G)).
  { unfold G', with_species_order, G, bipartite_of. cbn [g_species]. rewrite (sort_species_order n _ P).
    symmetry. apply sort_sorted_seq. }
  assert (Eok : split_ok G' = split_ok G).
  { destruct n as [|n']; [apply Permutation_sym, Permutation_nil in P; discriminate|]. reflexivity. }
  split; [unfold species_nodes_sorted; now rewrite Es|]. split; [unfold species_labels; now rewrite Es|].
  split; apply find_sets_ext; auto; apply (closed_indices_arcs _ _ G' G); reflexivity.
Qed.

(** Non-vacuity: A -> B, B -> C with the species nodes inserted A, C, B: trap {C}, siphon {A}, as for the export *)
Example ex_insertion_order :
  find_traps (with_species_order [0; 2; 1] (bipartite_of 3 [([(0, 1%Z)], [(1, 1%Z)]); ([(1, 1%Z)], [(2, 1%Z)])])) None = Some [[2]] /\
  find_siphons (with_species_order [0; 2; 1] (bipartite_of 3 [([(0, 1%Z)], [(1, 1%Z)]); ([(1, 1%Z)], [(2, 1%Z)])])) None = Some [[0]] /\
  g_species (with_species_order [0; 2; 1] (bipartite_of 3 [])) <> g_species (bipartite_of 3 []).
Proof. split; [|split]; vm_compute; [reflexivity|reflexivity|discriminate]. Qed.
