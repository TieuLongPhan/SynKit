(** C01 — its_decompose on arbitrary ITS-shaped graphs (model/C01_DecRaw.v): on a well-formed ITS of the model it IS
    its_decompose (no node is created by add_edge, no edge is merged), and the node pass in closed form *)
From Coq Require Import List NArith ZArith Bool.
From SK Require Import lib.LGraph lib.C01_GraphLemmas model.C01_Model model.C01_String model.C01_DecRaw proof.C01_Proof.
Import ListNotations.
Local Open Scope Z_scope.

Definition decE (se : iedge -> Z) (l : list (N * N * iedge)) : list (N * N * Z) :=
  flat_map (fun e : N * N * iedge => let '(u, v, x) := e in if 0 <? se x then [(u, v, se x)] else []) l.
Definition embE (l : list (N * N * iedge)) : list (N * N * option (Z * Z)) :=
  map (fun e : N * N * iedge => let '(u, v, x) := e in (u, v, Some (e_G x, e_H x))) l.

Lemma find_edge_decE_none se a b l : find_edge a b l = None -> find_edge a b (decE se l) = None.
Proof.
  induction l as [|[[u v] x] r IH]; [reflexivity|]. cbn [find_edge decE flat_map].
  destruct ((N.eqb u a && N.eqb v b) || (N.eqb u b && N.eqb v a)) eqn:M; [discriminate|]. intros E.
  fold (decE se r). destruct (0 <? se x); cbn [app find_edge]; [rewrite M|]; apply IH; exact E.
Qed.

Lemma ensure_o_present n ns : assoc n ns <> None -> ensure_o n ns = ns.
Proof. unfold ensure_o. destruct (assoc n ns); [reflexivity|congruence]. Qed.

Section Fold.
Variable se : iedge -> Z.
Variable sele : Z * Z -> Z.
Hypothesis Hsel : forall x, sele (e_G x, e_H x) = se x.
Variable ns : list (N * option gnode).

Lemma raw_fold l2 : forall l1,
  (forall a b x, In (a, b, x) l2 -> assoc a ns <> None /\ assoc b ns <> None) ->
  (forall p a b x q, l1 ++ l2 = p ++ (a, b, x) :: q -> find_edge a b p = None) ->
  fold_left (raw_edge_step sele) (embE l2) (LG ns (decE se l1)) = LG ns (decE se (l1 ++ l2)).
Proof.
  induction l2 as [|[[u v] x] r IH]; intros l1 Hn Hs.
  - rewrite app_nil_r. reflexivity.
  - cbn [embE map fold_left raw_edge_step]. rewrite Hsel.
    assert (decE se (l1 ++ [(u, v, x)]) = if 0 <? se x then decE se l1 ++ [(u, v, se x)] else decE se l1) as ED.
    { unfold decE. rewrite flat_map_app. cbn [flat_map]. destruct (0 <? se x); [reflexivity|]. rewrite !app_nil_r. reflexivity. }
    assert (find_edge u v (decE se l1) = None) as FN by (apply find_edge_decE_none; apply (Hs l1 u v x r); reflexivity).
    destruct (Hn u v x (or_introl eq_refl)) as [Au Av].
    assert ((if 0 <? se x then add_edge_o u v (se x) (LG ns (decE se l1)) else LG ns (decE se l1)) = LG ns (decE se (l1 ++ [(u, v, x)]))) as ->.
    { rewrite ED. destruct (0 <? se x); [|reflexivity]. unfold add_edge_o. cbn [gnodes gedges].
      rewrite (ensure_o_present u ns Au), (ensure_o_present v ns Av). unfold upsert_edge. rewrite FN. reflexivity. }
    fold (embE r). replace (l1 ++ (u, v, x) :: r) with ((l1 ++ [(u, v, x)]) ++ r) by (rewrite <- app_assoc; reflexivity).
    apply IH.
    + intros a b y I. apply (Hn a b y). right. exact I.
    + intros p a b y q E. apply (Hs p a b y q). rewrite <- app_assoc in E. exact E.
Qed.
End Fold.

Lemma assoc_map_some {V W} (f : N * V -> W) (l : list (N * V)) n :
  In n (map fst l) -> assoc n (map (fun p => (fst p, Some (f p))) l) <> None.
Proof.
  induction l as [|[k v] r IH]; cbn; [intros []|]. intros [->|I]; [rewrite N.eqb_refl; discriminate|].
  destruct (N.eqb n k); [discriminate|apply IH; exact I].
Qed.

Lemma dec_side_raw_embed sn se seln sele (I : its) : wf I ->
  (forall a, seln (i_G a, Some (i_H a)) = Some (sn a)) -> (forall x, sele (e_G x, e_H x) = se x) ->
  dec_side_raw seln sele (embed_its I) = some_nodes (dec_side sn se I).
Proof.
  intros W Hn He. unfold dec_side_raw, embed_its, some_nodes, dec_side. cbn [gnodes gedges].
  set (ns := map (fun p : N * gnode => (fst p, Some (snd p))) (map (fun p : N * inode => (fst p, dec_node (sn (snd p)) (fst p))) (gnodes I))).
  assert (raw_nodes seln (LG (map (fun p : N * inode => (fst p, Some (i_G (snd p), Some (i_H (snd p))))) (gnodes I))
                             (map (fun e : N * N * iedge => let '(u, v, x) := e in (u, v, Some (e_G x, e_H x))) (gedges I))) = ns) as ->.
  { unfold raw_nodes, ns. cbn [gnodes]. rewrite map_map. induction (gnodes I) as [|[k a] r IH]; [reflexivity|].
    cbn [map flat_map fst snd]. rewrite Hn. cbn [app]. f_equal. exact IH. }
  fold (embE (gedges I)). change (@nil (N * N * Z)) with (decE se []).
  rewrite (raw_fold se sele He ns (gedges I) []).
  - reflexivity.
  - intros a b x Ie. destruct (wf_edge_nodes W Ie) as (Ia & Ib & _). unfold ns. rewrite map_map. cbn [fst snd].
    split; apply (assoc_map_some (fun p : N * inode => dec_node (sn (snd p)) (fst p))); assumption.
  - intros p a b x q E. cbn [app] in E. destruct W as (_ & _ & W3). apply (W3 p a b x q E).
Qed.

(** C01_decompose_raw: on a well-formed ITS the branch-complete model is its_decompose *)
Theorem decompose_raw_embed (I : its) : wf I ->
  its_decompose_raw (embed_its I) = (some_nodes (fst (its_decompose I)), some_nodes (snd (its_decompose I))).
Proof.
  intros W. unfold its_decompose_raw, its_decompose. cbn [fst snd]. f_equal.
  - apply (dec_side_raw_embed i_G e_G); [exact W|reflexivity|reflexivity].
  - apply (dec_side_raw_embed i_H e_H); [exact W|reflexivity|reflexivity].
Qed.

(** the node pass: a node without typesGH is skipped on both sides, an empty product tuple skips the product side only *)
Theorem raw_nodes_spec (I : rits) n (o : option gnode) :
  (In (n, o) (raw_nodes (fun t => Some (fst t)) I) <-> exists g h, In (n, Some (g, h)) (gnodes I) /\ o = Some (dec_node g n)) /\
  (In (n, o) (raw_nodes snd I) <-> exists g h, In (n, Some (g, Some h)) (gnodes I) /\ o = Some (dec_node h n)).
Proof.
  unfold raw_nodes. split; rewrite in_flat_map; split.
  - intros ([k [[g h]|]] & Ik & K); cbn in K; [|destruct K]. destruct K as [K|[]]. inversion K; subst. eauto.
  - intros (g & h & Ik & ->). exists (n, Some (g, h)). split; [exact Ik|]. left. reflexivity.
  - intros ([k t] & Ik & K). cbn [snd fst] in K. destruct t as [[g h]|]; [|destruct K]. cbn [snd] in K.
    destruct h as [h|]; [|destruct K]. destruct K as [K|[]]. inversion K; subst. eauto.
  - intros (g & h & Ik & ->). exists (n, Some (g, Some h)). split; [exact Ik|]. left. reflexivity.
Qed.

(** non-vacuity: node 2 has no typesGH, node 3 an empty product tuple, the bond 1-2 creates an attribute-less node 2 on the
    reactant side, the bond 1-3 (product order 1) creates an attribute-less node 3 on the product side, the bond 3-1 without
    order is skipped *)
Definition ex_raw : rits :=
  LG [(1%N, Some (NA 70%N false 3 0 [], Some (NA 70%N false 2 0 []))); (2%N, None); (3%N, Some (NA 82%N false 1 0 [], None))]
     [(1%N, 2%N, Some (2, 0)); (1%N, 3%N, Some (0, 2)); (3%N, 1%N, None)].
Example C01_decompose_raw_nonvacuous :
  map fst (gnodes (fst (its_decompose_raw ex_raw))) = [1; 3; 2]%N /\ assoc 2%N (gnodes (fst (its_decompose_raw ex_raw))) = Some None /\
  gedges (fst (its_decompose_raw ex_raw)) = [(1%N, 2%N, 2)] /\
  gnodes (snd (its_decompose_raw ex_raw)) = [(1%N, Some (dec_node (NA 70%N false 2 0 []) 1%N)); (3%N, None)] /\
  gedges (snd (its_decompose_raw ex_raw)) = [(1%N, 3%N, 2)].
Proof. repeat split; reflexivity. Qed.
