(** C01 — [reaction_okb] (model/C01_Prem.v) is sound for the reaction-side hypotheses of the string theorems *)
From Coq Require Import List NArith ZArith Bool Arith.
From SK Require Import lib.LGraph lib.C01_GraphLemmas model.C01_Model model.C02_Model model.C01_String model.C01_HBal model.C01_Prem
  proof.C01_OptsProof proof.C01_Proof proof.C01_StringProof proof.C01_StringPipe.
Import ListNotations.
Local Open Scope Z_scope.

Lemma rmol_okb_spec m : rmol_okb m = true -> rmol_ok m.
Proof. unfold rmol_okb. intros E. apply andb_true_iff in E. destruct E as [E1 E2]. split; [apply nodupNb_spec; exact E1|apply simpleb_spec; exact E2]. Qed.

Lemma same_nodesb_spec G H : same_nodesb G H = true -> same_nodes G H.
Proof.
  unfold same_nodesb. intros E. apply andb_true_iff in E. destruct E as [E1 E2]. rewrite forallb_forall in E1, E2.
  intros n. split; intros I; apply mem_spec; auto.
Qed.

Lemma orders_posb_spec G : orders_posb G = true -> orders_pos G.
Proof. unfold orders_posb. rewrite forallb_forall. intros E u v o I. specialize (E _ I). cbn in E. apply Z.ltb_lt in E. exact E. Qed.

Lemma one_parentb_spec g : one_parentb g = true -> one_parent g.
Proof.
  unfold one_parentb. intros F h Hh. rewrite forallb_forall in F.
  assert (In h (node_ids g)) as Ih.
  { unfold is_Hn in Hh. destruct (label g h) as [a|] eqn:L; [eapply label_some_node; eauto|discriminate]. }
  specialize (F h Ih). rewrite Hh in F. cbn in F. apply Nat.leb_le in F. exact F.
Qed.

(** C01_reaction_test_sound *)
Theorem reaction_okb_sound mr mp : reaction_okb mr mp = true ->
  rmol_ok mr /\ rmol_ok mp /\ wf (graph_of mr) /\ wf (graph_of mp) /\ same_nodes (graph_of mr) (graph_of mp) /\
  orders_pos (graph_of mr) /\ orders_pos (graph_of mp) /\ one_parent (graph_of mr) /\ one_parent (graph_of mp).
Proof.
  unfold reaction_okb. intros E. repeat (apply andb_true_iff in E; destruct E as [E ?]).
  assert (rmol_ok mr) as Or by (split; [apply nodupNb_spec; exact E|apply simpleb_spec; exact H7]).
  pose proof (rmol_okb_spec mp H6) as Op.
  assert (forall m, no_loopb m = true -> forall u v o, In (u, v, o) (mapped_bonds m) -> u <> v) as NL.
  { intros m F u v o I. unfold no_loopb in F. rewrite forallb_forall in F. specialize (F _ I). cbn in F.
    apply negb_true_iff in F. apply N.eqb_neq in F. exact F. }
  split; [exact Or|]. split; [exact Op|].
  split; [apply graph_of_wf; [exact Or|apply NL; assumption]|]. split; [apply graph_of_wf; [exact Op|apply NL; assumption]|].
  split; [apply same_nodesb_spec; assumption|]. split; [apply orders_posb_spec; assumption|]. split; [apply orders_posb_spec; assumption|].
  split; apply one_parentb_spec; assumption.
Qed.

Example C01_reaction_test_nonvacuous : reaction_okb ex_mr ex_mp = true /\ reaction_okb ex_mr ex_mr = true /\
  reaction_okb ex_mr (RM [RA 70%N false 3 0 1%N []] []) = false.
Proof. repeat split; reflexivity. Qed.

Lemma h_safeb_spec sel ns : h_safeb sel ns = true -> h_safe sel ns.
Proof.
  unfold h_safeb. rewrite forallb_forall. intros F n a I E. specialize (F _ I). cbn [snd] in F. rewrite E, N.eqb_refl in F.
  cbn in F. apply Z.leb_le in F. exact F.
Qed.

Theorem eh_okb_sound mr mp : eh_okb mr mp = true ->
  h_safe i_G (gnodes (its_construct (graph_of mr) (graph_of mp))) /\ h_safe i_H (gnodes (its_construct (graph_of mr) (graph_of mp))).
Proof. unfold eh_okb. intros E. apply andb_true_iff in E. destruct E as [E1 E2]. split; apply h_safeb_spec; assumption. Qed.

Example C01_eh_test_nonvacuous : eh_okb ex_mr ex_mp = true.
Proof. reflexivity. Qed.
