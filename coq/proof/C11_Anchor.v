(** C11 — the anchor components: Automorphism.anchor_component is a component of maximal size (the first one);
    AutoEst.anchor_component is a component of maximal size and, among those, of smallest minimal node id. *)
From Coq Require Import List NArith Arith Bool Lia.
From SK Require Import lib.LGraph model.C11_Model.
Import ListNotations.

Lemma first_max_len_spec l : forall best,
  In (first_max_len best l) (best :: l) /\ forall c, In c (best :: l) -> (length c <= length (first_max_len best l))%nat.
Proof.
  induction l as [|x r IH]; intros best; simpl.
  - split; [left; reflexivity | intros c [<-|[]]; lia].
  - destruct (Nat.ltb_spec (length best) (length x)) as [H|H].
    + destruct (IH x) as [H1 H2]. split.
      * destruct H1 as [E|H1]; [right; left; exact E | right; right; exact H1].
      * intros c [<-|[<-|Hc]].
        -- specialize (H2 x (or_introl eq_refl)). lia.
        -- apply H2. left. reflexivity.
        -- apply H2. right. exact Hc.
    + destruct (IH best) as [H1 H2]. split.
      * destruct H1 as [E|H1]; [left; exact E | right; right; exact H1].
      * intros c [<-|[<-|Hc]].
        -- apply H2. left. reflexivity.
        -- specialize (H2 best (or_introl eq_refl)). lia.
        -- apply H2. right. exact Hc.
Qed.

Lemma choose_anchor_spec comps A : choose_anchor comps = Some A ->
  In A comps /\ forall c, In c comps -> (length c <= length A)%nat.
Proof.
  unfold choose_anchor. destruct comps as [|c [|d r]]; try discriminate.
  intros [= <-]. exact (first_max_len_spec (d :: r) c).
Qed.

Lemma better_spec a b : better a b = true <->
  ((length b < length a)%nat \/ (length a = length b /\ (minN a < minN b)%N)).
Proof.
  unfold better. destruct (Nat.ltb_spec (length b) (length a)) as [H|H]; [split; auto|].
  destruct (Nat.eqb_spec (length a) (length b)) as [E|E].
  - rewrite N.ltb_lt. split; [auto | intros [?|[_ ?]]; [lia | assumption]].
  - split; [discriminate | intros [?|[? _]]; lia].
Qed.

(** c is not strictly before A in sorted(key = (-len, min)) *)
Definition not_before (c A : list N) : Prop :=
  (length c < length A)%nat \/ (length c = length A /\ (minN A <= minN c)%N).

Lemma not_before_iff c A : not_before c A <-> better c A = false.
Proof. unfold not_before. rewrite <- not_true_iff_false, better_spec. lia. Qed.

Lemma fold_better_spec l : forall best,
  let R := fold_left (fun b x => if better x b then x else b) l best in
  In R (best :: l) /\ forall c, In c (best :: l) -> not_before c R.
Proof.
  induction l as [|x r IH]; intros best; simpl.
  - split; [left; reflexivity | intros c [<-|[]]; unfold not_before; lia].
  - destruct (better x best) eqn:B.
    + destruct (IH x) as [H1 H2]. split.
      * destruct H1 as [E|H1]; [right; left; exact E | right; right; exact H1].
      * intros c [<-|[<-|Hc]].
        -- pose proof (H2 x (or_introl eq_refl)) as Hx. apply better_spec in B. unfold not_before in *. lia.
        -- apply H2. left. reflexivity.
        -- apply H2. right. exact Hc.
    + destruct (IH best) as [H1 H2]. split.
      * destruct H1 as [E|H1]; [left; exact E | right; right; exact H1].
      * intros c [<-|[<-|Hc]].
        -- apply H2. left. reflexivity.
        -- pose proof (H2 best (or_introl eq_refl)) as Hb. apply not_before_iff in B. unfold not_before in *. lia.
        -- apply H2. right. exact Hc.
Qed.

Lemma anchors_all (fn : nlab -> N) (fe : elab -> N) (g : graph) :
  (forall A, a_anchor (analyze fn fe g) = Some A ->
     In A (components g) /\ forall c, In c (components g) -> (length c <= length A)%nat) /\
  (components g <> [] ->
     In (wl_anchor g) (components g) /\ forall c, In c (components g) -> not_before c (wl_anchor g)).
Proof.
  split.
  - intros A H. unfold analyze in H. destruct (node_ids g); [discriminate|].
    destruct (length (components g) <=? 1)%nat.
    + destruct (analyze_component fn fe g). discriminate.
    + simpl in H. apply choose_anchor_spec. exact H.
  - intros Hne. unfold wl_anchor. destruct (components g) as [|c r]; [congruence|]. apply fold_better_spec.
Qed.

Example ex_anchor :
  wl_anchor (LG [(5, (0, 0, 0)); (6, (0, 0, 0)); (1, (0, 0, 0)); (2, (0, 0, 0)); (9, (0, 0, 0))]%N
                [(5, 6, (0, 0)); (1, 2, (0, 0))]%N) = [2; 1]%N /\
  a_anchor (analyze n_exact e_order (LG [(5, (0, 0, 0)); (6, (0, 0, 0)); (1, (0, 0, 0)); (2, (0, 0, 0)); (9, (0, 0, 0))]%N
                [(5, 6, (0, 0)); (1, 2, (0, 0))]%N)) = Some [6; 5]%N.
Proof. split; vm_compute; reflexivity. Qed.
