(** C17 — rank and kernel dimensions from a checked certificate (MathComp style).
    The executable checker is lib/RankBridge.check_rank (sound w.r.t. \rank over rat); here it is tied to the
    model's [rank_checked] and the kernel dimensions are derived. *)
From mathcomp Require Import ssreflect ssrbool ssrnat seq ssralg matrix mxalgebra rat.
From Coq Require Import BinInt.
From SK Require Import lib.RankBridge.
Require SK.model.C17_Model.
Set Implicit Arguments. Unset Strict Implicit. Unset Printing Implicit Defensive.
Local Open Scope ring_scope.

Lemma rank_checked_sound m n (S : seq (seq Z)) (c : C17_Model.rcert) :
  C17_Model.rank_checked m n S c = true -> \rank (toM m n S) = C17_Model.rc_r c.
Proof. by rewrite /C17_Model.rank_checked => /check_rank_sound. Qed.

(** left kernel {y | y S = 0} has dimension m - r, right kernel {v | S v = 0} has dimension n - r *)
Lemma kernel_dims m n (S : seq (seq Z)) (c : C17_Model.rcert) :
  C17_Model.rank_checked m n S c = true ->
  \rank (kermx (toM m n S)) = (m - C17_Model.rc_r c)%nat /\ \rank (kermx (toM m n S)^T) = (n - C17_Model.rc_r c)%nat.
Proof. by move=> /rank_checked_sound H; rewrite !mxrank_ker mxrank_tr H. Qed.

Lemma rank_bounds m n (S : seq (seq Z)) (c : C17_Model.rcert) :
  C17_Model.rank_checked m n S c = true -> (C17_Model.rc_r c <= m)%nat /\ (C17_Model.rc_r c <= n)%nat.
Proof. by move=> /rank_checked_sound <-; rewrite rank_leq_row rank_leq_col. Qed.

(** every kernel vector really annihilates the matrix (definition of kermx) *)
Lemma kernel_annihilates m n (S : seq (seq Z)) : kermx (toM m n S) *m toM m n S = 0.
Proof. exact: mulmx_ker. Qed.

(* non-vacuity: the certificate of A + B <-> C  (S = [[-1,1],[-1,1],[1,-1]], rank 1) is accepted *)
Example ex_rank_ABC :
  C17_Model.rank_checked 3 2 [:: [:: -1; 1]; [:: -1; 1]; [:: 1; -1]]%Z
    (C17_Model.RCert 1 [:: [:: -1]; [:: -1]; [:: 1]]%Z [:: [:: 1; -1]]%Z [:: [:: -1; 0; 0]]%Z [:: [:: 1]; [:: 0]]%Z 1%Z) = true.
Proof. by vm_compute. Qed.
