(** C14 — proofs about the heap+cache machine (model/C14_Model.v): cache transparency for the
    pinned key discipline under every allocator / collector / cache size, and the refutation for the
    unpinned discipline. *)
From Coq Require Import NArith List Bool Arith.
Import ListNotations.
From SK Require Import model.C14_Model.
Local Open Scope N_scope.

Lemma Forall_tl {A} (P : A -> Prop) l : Forall P l -> Forall P (tl l).
Proof. destruct l; simpl; auto. intro H; inversion H; auto. Qed.

Definition allocated (ev : event) : list N := match ev with EAlloc _ c => [c] | _ => [] end.

Lemma spec_cons {R} (execute : N -> N -> bool -> R) cs ev tr :
  spec execute cs (ev :: tr) = spec execute cs [ev] ++ spec execute (cs ++ allocated ev) tr.
Proof. destruct ev; simpl; rewrite ?app_nil_r; reflexivity. Qed.

Definition cont_of (cs : list N) (o : N) : N := nth (N.to_nat o) cs 0.

Lemma cont_of_ext cs l o : (N.to_nat o < length cs)%nat -> cont_of (cs ++ l) o = cont_of cs o.
Proof. intro H. unfold cont_of. apply app_nth1; auto. Qed.

Lemma cont_of_last cs c l : cont_of (cs ++ c :: l) (N.of_nat (length cs)) = c.
Proof. unfold cont_of. rewrite Nat2N.id, app_nth2, Nat.sub_diag by apply le_n. reflexivity. Qed.

Lemma next_id (cs : list N) c : N.of_nat (length cs) + 1 = N.of_nat (length (cs ++ [c])).
Proof. rewrite app_length, Nat.add_1_r, Nat2N.inj_succ, N.add_1_r. reflexivity. Qed.

Section Transparent.
  Variable R : Type.
  Variable execute : N -> N -> bool -> R.
  Variable cache_on : bool.
  Variable cmax : nat.

  Notation applyP := (apply R execute true cache_on cmax).
  Notation stepP := (step R execute true cache_on cmax).
  Notation runP := (run R execute true cache_on cmax).

  Definition entry_ok (cs : list N) (e : centry R) : Prop :=
    e_res e = execute (cont_of cs (e_ps e)) (cont_of cs (e_pr e)) (e_kinv e)
    /\ (N.to_nat (e_ps e) < length cs)%nat /\ (N.to_nat (e_pr e) < length cs)%nat.

  Definition obj_ok (cs : list N) (x : obj) : Prop :=
    (N.to_nat (o_id x) < length cs)%nat /\ cont_of cs (o_id x) = o_cont x.

  (** The invariant: identities are allocation serial numbers, every live object carries the content
      it was allocated with, and every cache entry holds the result of executing the rule on the
      contents of the objects it pins.  Addresses do not occur in it. *)
  Definition Inv (cs : list N) (s : state R) : Prop :=
    next s = N.of_nat (length cs) /\ Forall (obj_ok cs) (heap s) /\ Forall (entry_ok cs) (cache s).

  Lemma obj_ok_ext cs l x : obj_ok cs x -> obj_ok (cs ++ l) x.
  Proof.
    intros [H1 H2]. split.
    - rewrite app_length. apply Nat.lt_lt_add_r, H1.
    - rewrite cont_of_ext; auto.
  Qed.

  Lemma entry_ok_ext cs l e : entry_ok cs e -> entry_ok (cs ++ l) e.
  Proof.
    intros (H1 & H2 & H3). repeat split; try (rewrite app_length; apply Nat.lt_lt_add_r; assumption).
    rewrite !cont_of_ext; auto.
  Qed.

  Lemma find_obj_some o h x : find_obj o h = Some x -> In x h /\ o_id x = o.
  Proof. unfold find_obj. intro H. apply find_some in H as [Hin H]. apply N.eqb_eq in H. auto. Qed.

  Lemma upsert_Forall (P : centry R -> Prop) e c : P e -> Forall P c -> Forall P (upsert R e c).
  Proof.
    intros He. induction 1; simpl.
    - constructor; auto.
    - destruct (key_is R (e_ks e) (e_kr e) (e_kinv e) x); constructor; auto.
  Qed.

  Lemma lookup_some a b inv c e :
    lookup R a b inv c = Some e -> In e c /\ e_ks e = a /\ e_kr e = b /\ e_kinv e = inv.
  Proof.
    unfold lookup, key_is. intro H. apply find_some in H. destruct H as [Hin H].
    apply andb_true_iff in H as [H Hi]. apply andb_true_iff in H as [Ha Hb].
    apply N.eqb_eq in Ha, Hb. apply eqb_prop in Hi. auto.
  Qed.

  (** A hit is accepted only when the entry pins the very objects of the call (identities, not addresses):
      then its result is the result for their contents, whatever the key says. *)
  Lemma hit_ok cs c x y inv e :
    Forall (entry_ok cs) c -> obj_ok cs x -> obj_ok cs y ->
    lookup R (o_addr x) (o_addr y) inv c = Some e -> (e_ps e =? o_id x) && (e_pr e =? o_id y) = true ->
    e_res e = execute (o_cont x) (o_cont y) inv.
  Proof.
    intros Hc [_ Hx] [_ Hy] El Eid.
    apply lookup_some in El. destruct El as (Hin & _ & _ & Hinv).
    apply andb_true_iff in Eid as [E1 E2]. apply N.eqb_eq in E1, E2.
    rewrite Forall_forall in Hc. destruct (Hc _ Hin) as (Hr & _ & _).
    rewrite Hr, E1, E2, Hinv, Hx, Hy. reflexivity.
  Qed.

  (** _RuleApplier.__call__ answers with execute(contents) and keeps the invariant. *)
  Lemma apply_ok cs s x y inv :
    Inv cs s -> obj_ok cs x -> obj_ok cs y ->
    let '(s', (_, res)) := applyP s x y inv in res = execute (o_cont x) (o_cont y) inv /\ Inv cs s'.
  Proof.
    intros HI Hx Hy. unfold apply.
    assert (Hmiss : Inv cs (mkSt (heap s)
                      (upsert R (mkEntry (o_addr x) (o_addr y) inv (o_id x) (o_id y) (execute (o_cont x) (o_cont y) inv))
                              (if (cmax <=? length (cache s))%nat then tl (cache s) else cache s))
                      (next s))).
    { destruct HI as (Hn & Hh & Hc). repeat split; auto. simpl. apply upsert_Forall.
      - destruct Hx as [Hx1 Hx2], Hy as [Hy1 Hy2]. repeat split; simpl; auto. rewrite Hx2, Hy2. reflexivity.
      - destruct (cmax <=? length (cache s))%nat; auto using Forall_tl. }
    destruct cache_on; simpl; [|auto].
    destruct (lookup R (o_addr x) (o_addr y) inv (cache s)) as [e|] eqn:El;
      [destruct ((e_ps e =? o_id x) && (e_pr e =? o_id y)) eqn:Eid|]; auto.
    split; [|exact HI]. destruct HI as (_ & _ & Hc). exact (hit_ok cs _ x y inv e Hc Hx Hy El Eid).
  Qed.

  Lemma set_released_ok cs o h : Forall (obj_ok cs) h -> Forall (obj_ok cs) (set_released o h).
  Proof.
    unfold set_released. induction 1; simpl; constructor; auto.
    destruct (o_id x =? o); auto.
  Qed.

  Lemma step_ok cs s ev :
    Inv cs s ->
    match stepP s ev with
    | Some (s', out) =>
        Inv (cs ++ allocated ev) s' /\ match out with Some o => [snd o] | None => [] end = spec execute cs [ev]
    | None => True
    end.
  Proof.
    intros HI. pose proof HI as (Hn & Hh & Hc).
    destruct ev as [a c|so ro inv|o|o]; cbn [step allocated andb]; [|rewrite app_nil_r..].
    - destruct (addr_live a (heap s)); [trivial|].
      split; [|reflexivity]. repeat split; simpl.
      + rewrite Hn. apply next_id.
      + apply Forall_app. split.
        * eapply Forall_impl; [|exact Hh]. intros; apply obj_ok_ext; auto.
        * constructor; auto. split; simpl.
          -- rewrite Hn, Nat2N.id, app_length, Nat.add_1_r. apply Nat.lt_succ_diag_r.
          -- rewrite Hn. apply cont_of_last.
      + eapply Forall_impl; [|exact Hc]. intros; apply entry_ok_ext; auto.
    - destruct (find_obj so (heap s)) as [x|] eqn:Ex; [|trivial].
      destruct (find_obj ro (heap s)) as [y|] eqn:Ey; [|trivial].
      destruct (o_held x && o_held y); [|trivial].
      apply find_obj_some in Ex. destruct Ex as [Hx <-].
      apply find_obj_some in Ey. destruct Ey as [Hy <-].
      rewrite Forall_forall in Hh. pose proof (Hh _ Hx) as Hox. pose proof (Hh _ Hy) as Hoy.
      pose proof (apply_ok cs s x y inv HI Hox Hoy) as Ha.
      destruct (applyP s x y inv) as [s' [h res]]. destruct Ha as [-> HI'].
      split; [exact HI'|]. simpl. destruct Hox as [_ <-], Hoy as [_ <-]. reflexivity.
    - destruct (find_obj o (heap s)) as [x|]; [|trivial].
      destruct (o_held x); [|trivial].
      repeat split; simpl; auto using set_released_ok.
    - destruct (find_obj o (heap s)) as [x|]; [|trivial].
      destruct (o_held x || pins R o (cache s)); [trivial|].
      repeat split; simpl; auto. exact (incl_Forall (incl_filter _ _) Hh).
  Qed.

  (** Main induction: along every legal trace the answers are the specification's, and the invariant holds at the end
      for the contents allocated on the way. *)
  Lemma run_ok tr : forall cs s,
    Inv cs s ->
    let '(ok, outs, fin) := runP s tr in
    ok = true -> map snd outs = spec execute cs tr /\ Inv (cs ++ flat_map allocated tr) fin.
  Proof.
    induction tr as [|ev tr IH]; intros cs s HI; cbn [run flat_map].
    - rewrite app_nil_r. auto.
    - pose proof (step_ok cs s ev HI) as Hs.
      destruct (stepP s ev) as [[s' out]|]; [|discriminate]. destruct Hs as [HI' Hout].
      specialize (IH _ _ HI'). destruct (runP s' tr) as [[ok outs] fin].
      intros Hok. destruct (IH Hok) as [Ho Hf]. split.
      + rewrite spec_cons, <- Hout, <- Ho. destruct out; reflexivity.
      + rewrite app_assoc. exact Hf.
  Qed.

  Lemma init_Inv : Inv [] (init R).
  Proof. repeat split; simpl; auto. Qed.

  (** The answers from any state satisfying the invariant — in particular from a cache whose KEYS are
      meaningless in this process (a pickled copy shipped to a worker process): the identity check,
      not the key, is what makes a hit sound. *)
  Theorem cache_transparent_from cs s tr outs fin :
    Inv cs s -> runP s tr = (true, outs, fin) -> map snd outs = spec execute cs tr.
  Proof. intros HI Hrun. pose proof (run_ok tr cs s HI) as H. rewrite Hrun in H. apply H. reflexivity. Qed.

  Lemma run_Inv cs s tr outs fin :
    Inv cs s -> runP s tr = (true, outs, fin) -> Inv (cs ++ flat_map allocated tr) fin.
  Proof. intros HI Hrun. pose proof (run_ok tr cs s HI) as H. rewrite Hrun in H. apply H. reflexivity. Qed.

  Theorem cache_transparent tr outs fin :
    runP (init R) tr = (true, outs, fin) -> map snd outs = spec execute [] tr.
  Proof. apply cache_transparent_from, init_Inv. Qed.
End Transparent.

(** With the cache switched off the machine computes the specification as well, so "cache on" and
    "cache off" agree on every trace that is legal for both. *)
Corollary cache_on_equals_off R execute cmax tr outs1 fin1 outs2 fin2 :
  run R execute true true cmax (init R) tr = (true, outs1, fin1) ->
  run R execute true false cmax (init R) tr = (true, outs2, fin2) ->
  map snd outs1 = map snd outs2.
Proof.
  intros H1 H2. rewrite (cache_transparent _ _ _ _ _ _ _ H1), (cache_transparent _ _ _ _ _ _ _ H2). reflexivity.
Qed.

(** A legal trace with cache size 1 in which the allocator reuses the address of a collected
    substrate after its entry was evicted, with one genuine hit (same objects) and evictions. *)
Definition nv_exec (s r : N) (inv : bool) : list N := [s; r; if inv then 1 else 0].
Definition nv_trace : list event :=
  [EAlloc 7 100; EAlloc 8 200; EApply 0 1 false; EApply 0 1 false; EAlloc 9 101; EApply 2 1 false;
   ERelease 0; ECollect 0; EAlloc 7 102; EApply 3 1 false; EApply 3 1 true; EApply 2 1 false].

Example cache_transparent_nonvacuous :
  let '(ok, outs, fin) := run (list N) nv_exec true true 1 (init _) nv_trace in
  ok = true /\ map fst outs = [false; true; false; false; false; false]
  /\ map snd outs = spec nv_exec [] nv_trace
  /\ map snd outs = [[100; 200; 0]; [100; 200; 0]; [101; 200; 0]; [102; 200; 0]; [102; 200; 1]; [101; 200; 0]]
  /\ length (cache fin) = 1%nat.
Proof. vm_compute. repeat split; reflexivity. Qed.

(** While the entry pins the substrate the collector may not free it (so its address cannot be reused). *)
Example pinned_object_not_collectable :
  fst (fst (run (list N) nv_exec true true 8 (init _)
              [EAlloc 7 100; EAlloc 8 200; EApply 0 1 false; ERelease 0; ECollect 0])) = false.
Proof. vm_compute. reflexivity. Qed.

(** The unpinned key discipline (the code before the repair) is not transparent: a two-entry
    history in which the allocator hands the first substrate's address to the second. *)
Definition refute_exec (s r : N) (inv : bool) : list N := [s].
Definition refute_trace : list event :=
  [EAlloc 1 10; EAlloc 2 20; EApply 0 1 false; ERelease 0; ECollect 0; EAlloc 1 11; EApply 2 1 false].

Lemma cache_transparent_unpinned_refuted :
  exists (execute : N -> N -> bool -> list N) (tr : list event) (cmax : nat) outs fin,
    (1 <= cmax)%nat /\
    run (list N) execute false true cmax (init _) tr = (true, outs, fin) /\
    client_view tr = [CAlloc 10; CAlloc 20; CApply 0 1 false; CRelease 0; CAlloc 11; CApply 2 1 false] /\
    map snd outs <> spec execute [] tr.
Proof.
  exists refute_exec, refute_trace, 8%nat. eexists. eexists. split; [repeat constructor|].
  split; [vm_compute; reflexivity|]. split; [reflexivity|].
  vm_compute. congruence.
Qed.
