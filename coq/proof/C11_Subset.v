(** C11 (round 5) — deduplicate_matches_by_automorphisms with a SUBSET of the rule symmetries (docstring: "Any subset of the
    automorphism group is safe; a smaller subset only prunes less").  For a duplicate-free list of matches on the rule
    centre: whatever the full group keeps, every subset keeps too, and every match is still related to a kept one by a
    symmetry of the full group.  Stdlib lists. *)
From Coq Require Import List NArith.
From SK Require Import model.C11_Model proof.C11_Aut proof.C11_Dedup proof.C11_Main proof.C11_PruneClass.
Import ListNotations.

Section Sub.
Variable X : Type.
Variable key : X -> mapping.
Variable A' : list mapping.

(** an element that no earlier element (nor a previously kept one) is related to is kept - no transitivity needed *)
Lemma go_kept xs : forall seen ys, seen_ok X key A' seen ys ->
  forall x, In x xs -> first_among (same_cls X key A') xs x -> (forall y, In y ys -> ~ same_cls X key A' x y) ->
    In x (dedup_aut_go key A' xs seen).
Proof.
  induction xs as [|h r IH]; intros seen ys Hok x Hx Hf Hfree; [destruct Hx|]. simpl.
  destruct (existsb (set_eqb (key h)) seen) eqn:Eh.
  - destruct Hx as [<-|Hx].
    + exfalso. apply (Hok (key h)) in Eh. destruct Eh as (y & Hy & R). exact (Hfree y Hy R).
    + exact (IH seen ys Hok x Hx (proj1 (first_among_tail _ h r x Hx Hf)) Hfree).
  - destruct Hx as [<-|Hx]; [left; reflexivity|]. right.
    destruct (first_among_tail _ h r x Hx Hf) as [Hf' Hn].
    apply (IH _ (h :: ys) (seen_ok_step X key A' seen ys h Hok) x Hx Hf').
    intros y [<-|Hy]; [exact Hn | exact (Hfree y Hy)].
Qed.
End Sub.

Theorem dedup_subset_safe (X : Type) (key : X -> mapping) (rc : graph) (raw : list X) (A' : list mapping) :
  simple_graph rc -> NoDup raw -> (forall x, In x raw -> on_nodes rc (key x)) ->
  (forall s, In s A' -> In s (rule_auts rc)) ->
  (forall x, In x (dedup_aut key (rule_auts rc) raw) -> In x (dedup_aut key A' raw)) /\
  (forall x, In x raw -> exists y, In y (dedup_aut key A' raw) /\ rel1 (rule_auts rc) (key x) (key y)).
Proof.
  intros Hg Hnd HD Hsub.
  assert (Hrel : forall m m', rel1 A' m m' -> rel1 (rule_auts rc) m m').
  { intros m m' [E|(s & Hs & E)]; [left; exact E | right; exists s; split; [apply Hsub; exact Hs | exact E]]. }
  split.
  - intros x Hx.
    apply (dedup_aut_first X key (rule_auts rc) (on_nodes rc) (rel1_rule_trans rc Hg) raw Hnd HD x) in Hx.
    destruct Hx as (Hin & Hfirst). unfold dedup_aut.
    apply (go_kept X key A' raw [] []); [| exact Hin | | intros y []].
    + intros m. simpl. split; [discriminate | intros (y & [] & _)].
    + intros l1 l2 E z Hz R. exact (Hfirst l1 l2 E z Hz (Hrel _ _ R)).
  - intros x Hx. destruct (dedup_aut_complete X key A' raw x Hx) as (y & Hy & [E | [E | (s & Hs & E)]]).
    + exists y. split; [exact Hy|]. subst y. left. apply set_eqb_refl.
    + exists y. split; [exact Hy|]. left. exact E.
    + exists y. split; [exact Hy|]. right. exists s. split; [apply Hsub; exact Hs | exact E].
Qed.

(** non-vacuity: three matches on the path 1-2-3 (mirror symmetric): the full group drops the mirror image of the first
    match, the empty subset drops nothing; what the full group keeps is kept by the subset *)
Example ex_subset :
  dedup_aut (fun m : mapping => m) (rule_auts ex_path) ex_raw = [[(1, 7); (2, 8); (3, 9)]; [(1, 7); (2, 8); (3, 6)]]%N /\
  dedup_aut (fun m : mapping => m) [] ex_raw = ex_raw /\ length ex_raw = 3%nat.
Proof. vm_compute. repeat split. Qed.
