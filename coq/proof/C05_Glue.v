(** C05 — gluing commutes with relabelling of the substrate (pi) and of the rule (sg):
      glue (pi . host) (sg . rc) (pi o m o sg^-1) = pi . glue host rc m          (literal equality of list graphs)
    where [relabel] renames node ids and keeps insertion order. Stdlib lists. *)
From Coq Require Import List ZArith Bool.
From SK Require Import lib.LGraph.
From SK Require Import model.C03_Model model.C05_Model proof.C05_Proof.
Import ListNotations.



Section GlueEquiv.
  Variables sg pi : N -> N.
  Hypothesis sg_inj : inj sg.
  Hypothesis pi_inj : inj pi.

  Lemma its_of_host_relabel (host : hostg) : its_of_host (relabel pi host) = relabel pi (its_of_host host).
  Proof. exact (relabel_map_labels pi (fun a => IN a a 0 None) (fun o => (o, o, 0%Z)) host). Qed.

  Lemma upd_node_relabel {A B} (g : lgraph A B) n (f : A -> A) :
    upd_node (relabel pi g) (pi n) f = relabel pi (upd_node g n f).
  Proof.
    unfold upd_node, relabel; simpl. f_equal. rewrite !map_map. apply map_ext. intros [k a]; simpl.
    rewrite (inj_eqb pi k n pi_inj). destruct (N.eqb k n); reflexivity.
  Qed.

  Lemma mget_mv (m : mapping) u : mget (mv sg pi m) (sg u) = option_map pi (mget m u).
  Proof.
    unfold mget, mv. induction m as [|[p h] r IH]; simpl; [reflexivity|].
    rewrite (inj_eqb sg u p sg_inj). destruct (N.eqb u p); [reflexivity | apply IH].
  Qed.

  Lemma glue_nodes_relabel (rc : its) (m : mapping) : forall T : its,
    glue_nodes (relabel pi T) (relabel sg rc) (mv sg pi m) = relabel pi (glue_nodes T rc m).
  Proof.
    unfold glue_nodes. induction m as [|[p h] r IH]; intros T; simpl; [reflexivity|].
    rewrite (label_relabel _ _ sg sg_inj rc p).
    destruct (label rc p) as [pn|]; [|apply IH].
    rewrite (has_node_relabel _ _ pi pi_inj T h).
    destruct (has_node T h); [|apply IH].
    rewrite upd_node_relabel. apply IH.
  Qed.

  Lemma set_edge_relabel (T : its) u v x : set_edge (relabel pi T) (pi u) (pi v) x = relabel pi (set_edge T u v x).
  Proof.
    unfold set_edge, relabel; simpl. f_equal. rewrite !map_map. apply map_ext. intros [[a b] y].
    rewrite !(inj_eqb pi _ _ pi_inj).
    destruct ((N.eqb a u && N.eqb b v) || (N.eqb a v && N.eqb b u)); reflexivity.
  Qed.

  Lemma glue_edge_relabel (m : mapping) (st : option its) u v x :
    glue_edge (mv sg pi m) (option_map (relabel pi) st) (sg u, sg v, x)
    = option_map (relabel pi) (glue_edge m st (u, v, x)).
  Proof.
    destruct st as [T|]; [|reflexivity]. simpl.
    rewrite !mget_mv.
    destruct (mget m u) as [hu|]; simpl; [|reflexivity].
    destruct (mget m v) as [hv|]; simpl; [|reflexivity].
    rewrite (adj_relabel _ _ pi pi_inj T hu hv).
    destruct (LGraph.adj T hu hv) as [y|].
    - destruct (Z.eqb (eG x) 0).
      + destruct (Z.odd (eH y + eH x)); [reflexivity|]. simpl. rewrite set_edge_relabel. reflexivity.
      + simpl. rewrite set_edge_relabel. reflexivity.
    - simpl. unfold relabel; simpl. rewrite map_app. reflexivity.
  Qed.

  Lemma fold_glue_edge_relabel (m : mapping) (es : list (N * N * iedge)) : forall st : option its,
    fold_left (glue_edge (mv sg pi m)) (map (fun e => let '(a, b, x) := e in (sg a, sg b, x)) es) (option_map (relabel pi) st)
    = option_map (relabel pi) (fold_left (glue_edge m) es st).
  Proof.
    induction es as [|[[a b] x] r IH]; intros st; simpl; [reflexivity|].
    rewrite glue_edge_relabel. apply IH.
  Qed.

  Lemma glue_equivariant (host : hostg) (rc : its) (m : mapping) :
    glue (relabel pi host) (relabel sg rc) (mv sg pi m) = option_map (relabel pi) (glue host rc m).
  Proof.
    unfold glue. rewrite its_of_host_relabel, glue_nodes_relabel.
    change (gedges (relabel sg rc)) with (map (fun e : N * N * iedge => let '(a, b, x) := e in (sg a, sg b, x)) (gedges rc)).
    apply (fold_glue_edge_relabel m (gedges rc) (Some (glue_nodes (its_of_host host) rc m))).
  Qed.
End GlueEquiv.

(** non-vacuity: a two-atom rule glued on a three-atom chain, renumbered on both sides; the glued graph is defined *)
Definition ex_host : hostg :=
  LG [(1%N, NA 67%N false 3%Z 0%Z []); (2%N, NA 67%N false 2%Z 0%Z []); (3%N, NA 35%N false 0%Z 0%Z [])]
     [(1%N, 2%N, 2%Z); (2%N, 3%N, 2%Z)].
Definition ex_rc : its :=
  LG [(5%N, IN (NA 67%N false 0%Z 0%Z []) (NA 67%N false 0%Z 0%Z []) 0%Z None);
      (6%N, IN (NA 35%N false 0%Z 0%Z []) (NA 35%N false 0%Z (-1)%Z []) 0%Z None)]
     [(5%N, 6%N, (2%Z, 0%Z, 2%Z))].
Definition ex_m : mapping := [(5, 2); (6, 3)]%N.
Definition ex_pi (n : N) : N := (n + 10)%N.
Definition ex_sg (n : N) : N := (2 * n + 1)%N.
Example glue_equivariant_nonvacuous :
  glue (relabel ex_pi ex_host) (relabel ex_sg ex_rc) (mv ex_sg ex_pi ex_m) = option_map (relabel ex_pi) (glue ex_host ex_rc ex_m)
  /\ glue ex_host ex_rc ex_m <> None.
Proof. split; [vm_compute; reflexivity | vm_compute; discriminate]. Qed.

