(** C18 — clause 2: a renamed, re-ordered view receives the identical canonical graph.
    Ingredients: the leaf enumerations correspond (proof/C18_Equiv.v), equal labels give position-wise equal kinds and
    arcs between distinct positions (proof/C18_Label.v); self-loops are not part of the label, they are recovered from
    the partition-independent part of the signature (kind, degrees, sorted out-edge attributes), which is the same at
    every position of every leaf because the first refinement already separates it. *)
From Coq Require Import List NArith ZArith Bool Arith Lia Permutation.
From SK Require Import lib.IRSortKeys lib.IRCore lib.IRSearch lib.StrJoin lib.C18_IRValid model.C18_Model
  proof.C18_Order proof.C18_Spec proof.C18_Graph proof.C18_Canon proof.C18_Equiv proof.C18_Label proof.C18_Aut.
From SK Require lib.IRInst.
Import ListNotations.

(* ---------------- the partition-independent part of the signature ---------------- *)
Definition vkey (g : vgraph) (v : N) : Z * nat * nat * list eattr :=
  (kind_of g v, indeg g v, outdeg g v, sort_attrs (out_attrs g v)).

Lemma flat_attrs_inj l : forall l', flat_attrs l = flat_attrs l' -> l = l'.
Proof.
  induction l as [|[a b] l IH]; intros [|[a' b'] l'] E; simpl in E; try discriminate; auto.
  inversion E; subst. f_equal. auto.
Qed.

Lemma sig_vkey g P v w : sig g P v = sig g P w -> vkey g v = vkey g w.
Proof.
  unfold sig, vkey. intros E. simpl in E. inversion E as [[E1 E2 E3 E4]].
  apply Nat2Z.inj in E2, E3.
  destruct (app_inv_length _ _ _ _ (eq_trans (map_length _ _) (eq_sym (map_length _ _))) E4) as [_ E5].
  apply flat_attrs_inj in E5. congruence.
Qed.

Definition leaf_keys (g : vgraph) : list (Z * nat * nat * list eattr) :=
  kseq _ (vkey g) (refine IRInst.lexleb (sig g) (S (length (vnodes g))) (init_part g)).

Lemma leaves_of_keys g p : wf g -> In p (leaves_of g) ->
  exists pre r, p = pre ++ r /\ Permutation r (node_ids g) /\ map (vkey g) r = leaf_keys g /\ incl pre (node_ids g).
Proof.
  intros (Hnd & _) Hin. unfold leaves_of in Hin.
  destruct (leaves_kseq_top _ IRInst.lexleb IRInst.lexleb_total
              (fun a b c H1 H2 => IRInst.lexleb_trans a b c H1 H2) IRInst.lexleb_antisym
              (sig g) _ (vkey g) (sig_vkey g) (node_ids g) Hnd _ _ _ _ _ (init_part_vpart g Hnd) Hin) as (ext & r & -> & Hr & Hk & Hi).
  exists ext, r. auto.
Qed.

(* ---------------- out-arcs grouped by destination ---------------- *)
Definition oarc (g : vgraph) (u v : N) : list arc := match find_arc g u v with Some a => [(u, v, a)] | None => [] end.
Definition oattr (g : vgraph) (u v : N) : list eattr := match find_arc g u v with Some a => [a] | None => [] end.

Lemma NoDup_flat_map_dst g u r : NoDup r -> NoDup (flat_map (oarc g u) r).
Proof.
  induction 1 as [|v r Hv Hr IH]; simpl; [constructor|].
  apply NoDup_app_intro; auto.
  - unfold oarc. destruct (find_arc g u v); constructor; auto. constructor.
  - intros x H1 H2. unfold oarc in H1. destruct (find_arc g u v); [|contradiction]. destruct H1 as [<-|[]].
    apply in_flat_map in H2. destruct H2 as (w & Hw & H2). unfold oarc in H2.
    destruct (find_arc g u w); [|contradiction]. destruct H2 as [E|[]]. inversion E; subst. auto.
Qed.

Lemma out_arcs_by_dst g u r : wf g -> NoDup r -> Permutation r (node_ids g) ->
  Permutation (filter (fun e => N.eqb (asrc e) u) (varcs g)) (flat_map (oarc g u) r).
Proof.
  intros Hw Hnd Hp. apply NoDup_Permutation.
  - apply NoDup_filter. apply wf_nodup_arcs. auto.
  - apply NoDup_flat_map_dst. auto.
  - intros [[s d] a]. rewrite filter_In, in_flat_map. unfold asrc; simpl. split.
    + intros [I Es]. apply N.eqb_eq in Es. subst s. exists d. split.
      * apply (Permutation_in _ (Permutation_sym Hp)). destruct Hw as (_ & _ & He). apply (He _ I).
      * unfold oarc. unfold find_arc. rewrite (find_arc_l_in _ u d a); [left; auto|apply Hw|auto].
    + intros (v & Hv & I). unfold oarc in I. destruct (find_arc g u v) as [a'|] eqn:Ef; [|contradiction].
      destruct I as [I|[]]. inversion I; subst. split; [apply find_arc_l_some; auto|apply N.eqb_refl].
Qed.

Lemma out_arcs_grouped g u r : wf g -> NoDup r -> Permutation r (node_ids g) ->
  Permutation (out_attrs g u) (flat_map (oattr g u) r).
Proof.
  intros Hw Hnd Hp.
  assert (E : flat_map (oattr g u) r = map aattr (flat_map (oarc g u) r)).
  { rewrite map_flat_map. apply flat_map_ext. intros v. unfold oattr, oarc. destruct (find_arc g u v); reflexivity. }
  rewrite E. unfold out_attrs. apply Permutation_map. apply out_arcs_by_dst; assumption.
Qed.

Lemma ins_attr_perm x l : Permutation (ins_attr x l) (x :: l).
Proof.
  induction l as [|y l IH]; simpl; auto. destruct (attr_leb x y); auto.
  eapply perm_trans; [apply perm_skip; exact IH|apply perm_swap].
Qed.
Lemma sort_attrs_is_perm l : Permutation (sort_attrs l) l.
Proof. induction l as [|x l IH]; simpl; auto. eapply perm_trans; [apply ins_attr_perm|auto]. Qed.

Lemma flat_map_pos {A B} (F F' : A -> list B) d : forall l l', length l = length l' ->
  (forall j, j < length l -> F (nth j l d) = F' (nth j l' d)) -> flat_map F l = flat_map F' l'.
Proof.
  induction l as [|x l IH]; intros [|x' l'] Hl H; simpl in *; try discriminate; auto.
  rewrite (H 0 ltac:(lia)). f_equal. apply IH; [lia|]. intros j Hj. apply (H (S j)). lia.
Qed.

Lemma flat_map_hole {A B} (F F' : A -> list B) d : forall l l' i, length l = length l' -> i < length l ->
  (forall j, j < length l -> j <> i -> F (nth j l d) = F' (nth j l' d)) ->
  Permutation (flat_map F l) (flat_map F' l') -> Permutation (F (nth i l d)) (F' (nth i l' d)).
Proof.
  induction l as [|x l IH]; intros [|x' l'] i Hl Hi H HP; simpl in *; try discriminate; try lia.
  destruct i as [|i].
  - rewrite (flat_map_pos F F' d l l') in HP; [|lia|].
    + apply Permutation_app_inv_r in HP. auto.
    + intros j Hj. apply (H (S j)); lia.
  - rewrite (H 0 ltac:(lia) ltac:(lia)) in HP. apply Permutation_app_inv_l in HP.
    apply IH; auto; try lia. intros j Hj Hne. apply (H (S j)); lia.
Qed.

(** a self-loop is determined by the key and the arcs to the other positions *)
Lemma loop_from_key g r r' i : wf g -> NoDup r -> NoDup r' ->
  Permutation r (node_ids g) -> Permutation r' (node_ids g) -> i < length r ->
  vkey g (nth i r 0%N) = vkey g (nth i r' 0%N) ->
  (forall j, j < length r -> j <> i -> find_arc g (nth i r 0%N) (nth j r 0%N) = find_arc g (nth i r' 0%N) (nth j r' 0%N)) ->
  find_arc g (nth i r 0%N) (nth i r 0%N) = find_arc g (nth i r' 0%N) (nth i r' 0%N).
Proof.
  intros Hw Hnd Hnd' Hp Hp' Hi Hk Ha.
  assert (Hl : length r = length r') by (rewrite (Permutation_length Hp), (Permutation_length Hp'); auto).
  set (u := nth i r 0%N) in *. set (u' := nth i r' 0%N) in *.
  assert (Hs : Permutation (out_attrs g u) (out_attrs g u')).
  { unfold vkey in Hk. inversion Hk as [[E1 E2 E3 E]].
    eapply perm_trans; [apply Permutation_sym, sort_attrs_is_perm|]. rewrite E. apply sort_attrs_is_perm. }
  assert (HP : Permutation (flat_map (oattr g u) r) (flat_map (oattr g u') r')).
  { eapply perm_trans; [apply Permutation_sym, out_arcs_grouped; auto|].
    eapply perm_trans; [exact Hs|]. apply out_arcs_grouped; auto. }
  apply (flat_map_hole (oattr g u) (oattr g u') 0%N r r' i Hl Hi) in HP.
  - fold u u' in HP. unfold oattr in HP.
    destruct (find_arc g u u) as [a|], (find_arc g u' u') as [a'|]; auto.
    + apply Permutation_length_1 in HP. congruence.
    + apply Permutation_sym, Permutation_nil in HP. discriminate.
    + apply Permutation_nil in HP. discriminate.
  - intros j Hj Hne. unfold oattr. rewrite (Ha j Hj Hne). reflexivity.
Qed.

(* ---------------- two leaves with the same label ---------------- *)
Lemma nth_app_r {A} (l1 l2 : list A) i d : nth (length l1 + i) (l1 ++ l2) d = nth i l2 d.
Proof. rewrite app_nth2 by lia. f_equal. lia. Qed.

Theorem same_label_aut g p q : wf g -> kinds_ok g -> arcs_ok g ->
  In p (leaves_of g) -> In q (leaves_of g) -> label g p = label g q ->
  exists pre r pre' r', p = pre ++ r /\ q = pre' ++ r' /\ length pre = length pre' /\
    NoDup r /\ NoDup r' /\ Permutation r (node_ids g) /\ Permutation r' (node_ids g) /\
    is_aut g (seqmap r r').
Proof.
  intros Hw Hk Ha Hp Hq E.
  destruct (leaves_of_keys g p Hw Hp) as (pre & r & -> & Hr & Kr & Ipre).
  destruct (leaves_of_keys g q Hw Hq) as (pre' & r' & -> & Hr' & Kr' & Ipre').
  assert (Hnd : NoDup r) by (eapply Permutation_NoDup; [apply Permutation_sym; exact Hr|apply Hw]).
  assert (Hnd' : NoDup r') by (eapply Permutation_NoDup; [apply Permutation_sym; exact Hr'|apply Hw]).
  assert (Hl : length r = length r') by (rewrite (Permutation_length Hr), (Permutation_length Hr'); auto).
  assert (Ip : incl (pre ++ r) (node_ids g)).
  { intros x Hx. apply in_app_or in Hx. destruct Hx as [Hx|Hx]; [apply Ipre; auto|apply (Permutation_in _ Hr Hx)]. }
  assert (Iq : incl (pre' ++ r') (node_ids g)).
  { intros x Hx. apply in_app_or in Hx. destruct Hx as [Hx|Hx]; [apply Ipre'; auto|apply (Permutation_in _ Hr' Hx)]. }
  destruct (label_read g _ _ Hk Ha Ip Iq E) as (Hlen & Hkind & Harc).
  rewrite !app_length in Hlen. assert (Hlp : length pre = length pre') by lia.
  exists pre, r, pre', r'. split; [reflexivity|]. split; [reflexivity|]. split; [exact Hlp|]. split; [exact Hnd|].
  split; [exact Hnd'|]. split; [exact Hr|]. split; [exact Hr'|].
  assert (Hkind' : forall i, i < length r -> kind_of g (nth i r 0%N) = kind_of g (nth i r' 0%N)).
  { intros i Hi. specialize (Hkind (length pre + i)). rewrite app_length in Hkind. specialize (Hkind ltac:(lia)).
    rewrite nth_app_r in Hkind. rewrite Hlp, nth_app_r in Hkind. exact Hkind. }
  assert (Harc' : forall i j, i < length r -> j < length r -> i <> j ->
            find_arc g (nth i r 0%N) (nth j r 0%N) = find_arc g (nth i r' 0%N) (nth j r' 0%N)).
  { intros i j Hi Hj Hij. specialize (Harc (length pre + i) (length pre + j)). rewrite app_length in Harc.
    specialize (Harc ltac:(lia) ltac:(lia) ltac:(lia)).
    rewrite !nth_app_r in Harc. rewrite Hlp, !nth_app_r in Harc. exact Harc. }
  apply seq_aut; auto.
  intros i j Hi Hj. destruct (Nat.eq_dec i j) as [->|Hij]; [|apply Harc'; auto].
  apply loop_from_key; auto.
  pose proof (f_equal (fun l => nth j l (vkey g 0%N)) Kr) as K1. pose proof (f_equal (fun l => nth j l (vkey g 0%N)) Kr') as K2.
  simpl in K1, K2. rewrite map_nth in K1, K2. congruence.
Qed.

(* ---------------- the canonical graph does not depend on which minimal leaf is used ---------------- *)
Lemma cid_nth_tail pre r i : NoDup r -> i < length r -> cid (pre ++ r) (nth i r 0%N) = N.of_nat (S (length pre) + i).
Proof.
  intros Hnd Hi. pose proof (cid_tail pre r Hnd) as E.
  pose proof (f_equal (fun l => nth i l (cid (pre ++ r) 0%N)) E) as En. simpl in En.
  rewrite map_nth in En. rewrite En.
  rewrite (nth_indep _ _ (N.of_nat 0)) by (rewrite map_length, seq_length; auto).
  rewrite map_nth, seq_nth; auto.
Qed.

Theorem same_label_canon g p q : wf g -> kinds_ok g -> arcs_ok g ->
  In p (leaves_of g) -> In q (leaves_of g) -> label g p = label g q ->
  geq (canon_graph g p) (canon_graph g q).
Proof.
  intros Hw Hk Ha Hp Hq E.
  destruct (same_label_aut g p q Hw Hk Ha Hp Hq E) as (pre & r & pre' & r' & -> & -> & Hlp & Hnd & Hnd' & Hr & Hr' & Haut).
  assert (Hl : length r = length r') by (rewrite (Permutation_length Hr), (Permutation_length Hr'); auto).
  change (geq (relabel (cid (pre ++ r)) g) (relabel (cid (pre' ++ r')) g)).
  rewrite (relabel_ext (cid (pre ++ r)) (fun v => cid (pre' ++ r') (seqmap r r' v)) g Hw).
  - rewrite <- relabel_comp. apply geq_relabel. apply aut_geq; auto.
  - intros v Hv. apply (Permutation_in _ (Permutation_sym Hr)) in Hv. destruct (idx_in _ _ Hv) as [Hi <-].
    rewrite seqmap_nth; auto. rewrite !cid_nth_tail; auto; try lia.
Qed.

Lemma cid_map f (f_inj : forall x y : N, f x = f y -> x = y) p v : cid (map f p) (f v) = cid p v.
Proof.
  unfold cid. f_equal. generalize 0 at 2 4. generalize 0.
  induction p as [|w p IH]; intros i cur; simpl; auto. rewrite (eqb_f f f_inj). apply IH.
Qed.

Theorem canon_invariant f (f_inj : forall x y : N, f x = f y -> x = y) g g' lab p lab' p' :
  wf g -> kinds_ok g -> arcs_ok g -> geq g' (relabel f g) ->
  fst (canon_search g) = Some (lab, p) -> fst (canon_search g') = Some (lab', p') ->
  lab' = lab /\ geq (canon_graph g' p') (canon_graph g p).
Proof.
  intros Hw Hk Ha Hg Hb Hb'.
  destruct (best_is_leaf g lab p Hb) as [El Hp]. destruct (best_is_leaf g' lab' p' Hb') as [El' Hp'].
  pose proof (best_label_rel f f_inj g g' Hw Hg) as Ebl. unfold best_label in Ebl. rewrite Hb, Hb' in Ebl. simpl in Ebl.
  inversion Ebl as [Elab]. split; auto.
  apply (Permutation_in _ (Permutation_sym (leaves_of_rel f f_inj g g' Hw Hg))) in Hp'.
  apply in_map_iff in Hp'. destruct Hp' as (q & <- & Hq).
  assert (Elq : label g q = label g p).
  { rewrite <- (label_rel f f_inj g g' q Hw Hg). congruence. }
  eapply geq_trans; [|apply (same_label_canon g q p Hw Hk Ha Hq Hp Elq)].
  change (geq (relabel (cid (map f q)) g') (relabel (cid q) g)).
  eapply geq_trans; [apply geq_relabel; exact Hg|].
  rewrite relabel_comp. rewrite (relabel_ext _ (cid q) g Hw); [apply geq_refl|].
  intros v _. apply cid_map; auto.
Qed.

(* ---------------- clause 2 for a renaming that is only injective on the nodes of the view ---------------- *)
Lemma kinds_ok_relabel f g : kinds_ok g -> kinds_ok (relabel f g).
Proof. intros H p I. unfold relabel in I; simpl in I. apply in_map_iff in I. destruct I as (q & <- & I). apply (H q I). Qed.
Lemma arcs_ok_relabel f g : arcs_ok g -> arcs_ok (relabel f g).
Proof. intros H e I. unfold relabel in I; simpl in I. apply in_map_iff in I. destruct I as (q & <- & I). apply (H q I). Qed.
Lemma kinds_ok_geq g h : geq g h -> kinds_ok g -> kinds_ok h.
Proof. intros [H1 _] H p I. apply H. apply (Permutation_in _ (Permutation_sym H1) I). Qed.
Lemma arcs_ok_geq g h : geq g h -> arcs_ok g -> arcs_ok h.
Proof. intros [_ H2] H e I. apply H. apply (Permutation_in _ (Permutation_sym H2) I). Qed.

Definition dbl (x : N) : N := (2 * x)%N.
Definition ext_inj (l : list N) (f : N -> N) (x : N) : N := if memN x l then dbl (f x) else (2 * x + 1)%N.
Lemma ext_inj_on l f x : In x l -> ext_inj l f x = dbl (f x).
Proof. intros H. unfold ext_inj. apply memN_spec in H. rewrite H. reflexivity. Qed.
Lemma dbl_inj x y : dbl x = dbl y -> x = y.
Proof. unfold dbl. lia. Qed.
Lemma ext_inj_inj l f : inj_on f l -> forall x y, ext_inj l f x = ext_inj l f y -> x = y.
Proof.
  intros Hf x y. unfold ext_inj, dbl. destruct (memN x l) eqn:Ex, (memN y l) eqn:Ey; intros E; try lia.
  apply memN_spec in Ex, Ey. apply Hf; auto. lia.
Qed.

Theorem canon_invariant_on f g g' lab p lab' p' :
  inj_on f (node_ids g) -> wf g -> kinds_ok g -> arcs_ok g -> geq g' (relabel f g) ->
  fst (canon_search g) = Some (lab, p) -> fst (canon_search g') = Some (lab', p') ->
  lab' = lab /\ geq (canon_graph g' p') (canon_graph g p).
Proof.
  intros Hf Hw Hk Ha Hg Hb Hb'.
  set (f2 := ext_inj (node_ids g) f).
  set (gm := relabel f2 g).
  assert (Egm : gm = relabel dbl (relabel f g)).
  { unfold gm. rewrite relabel_comp. apply relabel_ext; auto. intros v Hv. apply ext_inj_on, Hv. }
  assert (Hwm : wf gm) by (apply wf_relabel; auto; intros x y _ _; apply ext_inj_inj; auto).
  destruct (fst (canon_search gm)) as [[labm pm]|] eqn:Hbm; [|exfalso; apply (canon_found gm Hwm); auto].
  destruct (canon_invariant f2 (ext_inj_inj _ f Hf) g gm lab p labm pm Hw Hk Ha (geq_refl _) Hb Hbm) as [E1 G1].
  assert (Hwf : wf (relabel f g)) by (apply wf_relabel; auto).
  assert (Hw' : wf g') by (apply (geq_wf (relabel f g)); [apply geq_sym; auto|auto]).
  assert (Hk' : kinds_ok g') by (apply (kinds_ok_geq (relabel f g)); [apply geq_sym; auto|apply kinds_ok_relabel; auto]).
  assert (Ha' : arcs_ok g') by (apply (arcs_ok_geq (relabel f g)); [apply geq_sym; auto|apply arcs_ok_relabel; auto]).
  assert (Hgm : geq gm (relabel dbl g')) by (rewrite Egm; apply geq_relabel; apply geq_sym; auto).
  destruct (canon_invariant dbl dbl_inj g' gm lab' p' labm pm Hw' Hk' Ha' Hgm Hb' Hbm) as [E2 G2].
  split; [congruence|]. eapply geq_trans; [apply geq_sym; exact G2|exact G1].
Qed.

(* ---------------- clauses 2 + 3 together: a complete invariant ---------------- *)
Theorem canon_complete_invariant g1 g2 l1 p1 l2 p2 :
  wf g1 -> kinds_ok g1 -> arcs_ok g1 -> wf g2 ->
  fst (canon_search g1) = Some (l1, p1) -> fst (canon_search g2) = Some (l2, p2) ->
  (iso g1 g2 <-> geq (canon_graph g1 p1) (canon_graph g2 p2)).
Proof.
  intros W1 K1 A1 W2 B1 B2. split.
  - intros (f & Hf & Hg). apply geq_sym.
    apply (canon_invariant_on f g1 g2 l1 p1 l2 p2 Hf W1 K1 A1 (geq_sym _ _ Hg) B1 B2).
  - apply (canon_complete g1 g2 l1 p1 l2 p2 W1 W2 B1 B2).
Qed.
