(** C01 — _create_light_weight_graph for EVERY flag combination: whenever the ids of the kept atoms are pairwise distinct and
    no two bonds join the same pair of ids (the hypotheses of theorem C01_mol_to_graph_general), the light-weight builder
    returns the labels and bonds of transform; the flags of rsmi_to_graph (drop_non_aam = use_index_as_atom_map = True) on a
    molecule with distinct maps are one instance *)
From Coq Require Import List NArith ZArith Bool Lia Arith.
From SK Require Import lib.LGraph lib.C01_GraphLemmas model.C01_Model model.C02_Model model.C01_String model.C01_DecRaw model.C01_Builders model.C01_M2GIdx
  proof.C01_Proof proof.C01_StringProof proof.C01_StringPipe proof.C01_NbrsProof.
Import ListNotations.

(** * association-list effects *)
Lemma upsert_assoc {V} k (v : V) l n : assoc n (upsert k v l) = if N.eqb n k then Some v else assoc n l.
Proof.
  induction l as [|[k' v'] r IH]; cbn [upsert assoc].
  - destruct (N.eqb n k); reflexivity.
  - destruct (N.eqb_spec k k') as [->|Hne]; cbn [assoc].
    + destruct (N.eqb n k'); reflexivity.
    + rewrite IH. destruct (N.eqb_spec n k') as [->|]; [|reflexivity]. destruct (N.eqb_spec k' k); [congruence|reflexivity].
Qed.

Lemma ensure_assoc k (l : list (N * option gnode)) n :
  assoc n (ensure_o k l) = match assoc n l with Some x => Some x | None => if N.eqb n k then Some None else None end.
Proof.
  unfold ensure_o. destruct (assoc k l) as [y|] eqn:Ek.
  - destruct (assoc n l) eqn:En; [reflexivity|]. destruct (N.eqb_spec n k) as [->|]; [congruence|reflexivity].
  - rewrite assoc_app. destruct (assoc n l); [reflexivity|]. cbn [assoc]. destruct (N.eqb n k); reflexivity.
Qed.

Lemma find_edge_cons a b (x : Z) es u v : find_edge u v ((a, b, x) :: es) = if same_pair a b u v then Some x else find_edge u v es.
Proof. reflexivity. Qed.

Lemma same_pair_spec a b u v : same_pair a b u v = true <-> (a = u /\ b = v) \/ (a = v /\ b = u).
Proof. apply match_pair_spec. Qed.

(** two pairs that both equal (u, v) as unordered pairs *)
Lemma same_pair_trans c d a b u v : same_pair c d u v = true -> same_pair c d a b = same_pair a b u v.
Proof.
  intros P. apply same_pair_spec in P. apply eq_true_iff_eq. rewrite !same_pair_spec.
  destruct P as [[-> ->]|[-> ->]]; intuition congruence.
Qed.

Lemma find_edge_same_pair (es : list (N * N * Z)) a b u v : same_pair a b u v = true -> find_edge a b es = find_edge u v es.
Proof.
  intros P. apply same_pair_spec in P. destruct P as [[-> ->]|[-> ->]]; [reflexivity|apply find_edge_sym].
Qed.

Lemma find_edge_map_upd a b o (es : list (N * N * Z)) u v :
  find_edge u v (map (fun e : N * N * Z => let '(c, d, x) := e in if same_pair c d a b then (c, d, o) else e) es) =
  match find_edge u v es with Some x => if same_pair a b u v then Some o else Some x | None => None end.
Proof.
  induction es as [|[[c d] x] r IH]; [reflexivity|]. cbn [map].
  rewrite (find_edge_cons c d x r u v). destruct (same_pair c d u v) eqn:P.
  - rewrite (same_pair_trans c d a b u v P). destruct (same_pair a b u v); rewrite find_edge_cons, P; reflexivity.
  - destruct (same_pair c d a b); rewrite find_edge_cons, P; exact IH.
Qed.

Lemma upsert_edge_find a b o es u v :
  find_edge u v (upsert_edge a b o es) = if same_pair a b u v then Some o else find_edge u v es.
Proof.
  unfold upsert_edge. destruct (find_edge a b es) as [y|] eqn:F.
  - rewrite find_edge_map_upd. destruct (same_pair a b u v) eqn:Q.
    + rewrite <- (find_edge_same_pair es a b u v Q), F. reflexivity.
    + destruct (find_edge u v es); reflexivity.
  - rewrite find_edge_app. destruct (same_pair a b u v) eqn:Q.
    + rewrite <- (find_edge_same_pair es a b u v Q), F. rewrite find_edge_cons, Q. reflexivity.
    + destruct (find_edge u v es); [reflexivity|]. rewrite find_edge_cons, Q. reflexivity.
Qed.

(** * distinct maps, index-wise *)
Lemma nodup_filter_index {X Y} (f : X -> Y) (p : X -> bool) (l : list X) :
  NoDup (map f (filter p l)) -> forall i j a b, nth_error l i = Some a -> nth_error l j = Some b ->
  p a = true -> p b = true -> f a = f b -> i = j.
Proof.
  induction l as [|x r IH]; intros Hn i j a b Ei Ej Pa Pb E; [destruct i; discriminate|].
  cbn [filter] in Hn.
  assert (NoDup (map f (filter p r))) as Hr by (destruct (p x); [inversion Hn; assumption|exact Hn]).
  destruct i as [|i], j as [|j]; cbn in Ei, Ej.
  - reflexivity.
  - exfalso. inversion Ei; subst x. rewrite Pa in Hn. inversion Hn as [|? ? Hx _]; subst. apply Hx.
    apply in_map_iff. exists b. split; [symmetry; exact E|]. apply filter_In. split; [eapply nth_error_In; eauto|exact Pb].
  - exfalso. inversion Ej; subst x. rewrite Pb in Hn. inversion Hn as [|? ? Hx _]; subst. apply Hx.
    apply in_map_iff. exists a. split; [exact E|]. apply filter_In. split; [eapply nth_error_In; eauto|exact Pa].
  - f_equal. eapply IH; eauto.
Qed.

(** an invariant of a loop over [enumerate l] that each turn carries from index s to S s *)
Lemma fold_enumerate_inv {X S} (f : S -> nat * X -> S) (l : list X) (P : S -> nat -> Prop) :
  (forall st s a, nth_error l s = Some a -> P st s -> P (f st (s, a)) (Datatypes.S s)) ->
  forall st, P st 0%nat -> P (fold_left f (enumerate l) st) (length l).
Proof.
  intros Step.
  assert (forall l' s st, (forall k, nth_error l' k = nth_error l (s + k)) -> P st s ->
            P (fold_left f (combine (seq s (length l')) l') st) (s + length l')%nat) as K.
  { induction l' as [|a l' IH]; intros s st Hl I.
    - cbn. rewrite Nat.add_0_r. exact I.
    - cbn [length seq combine fold_left].
      assert (nth_error l s = Some a) as Es by (specialize (Hl 0%nat); cbn in Hl; rewrite Nat.add_0_r in Hl; auto).
      replace (s + Datatypes.S (length l'))%nat with (Datatypes.S s + length l')%nat by lia. apply IH; [|apply Step; assumption].
      intros k. specialize (Hl (Datatypes.S k)). cbn in Hl. rewrite Hl. f_equal. lia. }
  intros st I. apply (K l 0%nat st); [reflexivity|exact I].
Qed.

Lemma atom_bonds_in (bs : list (nat * nat * Z)) k j o : In (j, o) (atom_bonds bs k) <-> In (k, j, o) bs \/ In (j, k, o) bs.
Proof.
  unfold atom_bonds. rewrite in_flat_map. split.
  - intros ([[x y] z] & Ib & Ij). destruct (Nat.eqb_spec x k) as [->|Nx].
    + destruct Ij as [E|[]]. inversion E; subst. left. exact Ib.
    + destruct (Nat.eqb_spec y k) as [->|Ny]; [|destruct Ij]. destruct Ij as [E|[]]. inversion E; subst. right. exact Ib.
  - intros [Ib|Ib].
    + exists (k, j, o). split; [exact Ib|]. rewrite Nat.eqb_refl. left. reflexivity.
    + exists (j, k, o). split; [exact Ib|]. destruct (Nat.eqb_spec j k) as [->|N]; [left; reflexivity|]. rewrite Nat.eqb_refl. left. reflexivity.
Qed.


Section LightGen.
Variable m : rmol.
Variables drop use : bool.
Hypothesis Hn : NoDup (map fst (gen_nodes drop use m)).
Hypothesis Hs : simple (gen_bonds drop use m).
Let atoms := rm_atoms m.
Let bs := rm_bonds m.
Let kept (a : ratom) : bool := kept_atom drop a.
Let idf (i : nat) (a : ratom) : N := atom_id use i a.

Lemma enum_nth i a : nth_error atoms i = Some a -> nth_error (enumerate atoms) i = Some (i, a).
Proof. intros E. unfold enumerate. rewrite nth_error_enumerate_from, E. reflexivity. Qed.

Lemma gen_keys : map fst (gen_nodes drop use m) =
  map (fun ia : nat * ratom => atom_id use (fst ia) (snd ia)) (filter (fun ia : nat * ratom => kept_atom drop (snd ia)) (enumerate atoms)).
Proof.
  unfold gen_nodes. fold atoms. induction (enumerate atoms) as [|[i a] l IH]; [reflexivity|]. cbn [flat_map filter fst snd].
  destruct (kept_atom drop a); cbn [app map fst]; rewrite IH; reflexivity.
Qed.

Lemma ids_distinct i j a b : nth_error atoms i = Some a -> nth_error atoms j = Some b ->
  kept a = true -> kept b = true -> idf i a = idf j b -> i = j.
Proof.
  intros Ei Ej Ka Kb E. pose proof Hn as H. rewrite gen_keys in H.
  apply (nodup_filter_index (fun ia : nat * ratom => atom_id use (fst ia) (snd ia)) (fun ia : nat * ratom => kept_atom drop (snd ia))
           (enumerate atoms) H i j (i, a) (j, b) (enum_nth i a Ei) (enum_nth j b Ej) Ka Kb E).
Qed.

Lemma kept_cond b : negb drop || negb (N.eqb (ra_map b) 0) = kept b.
Proof. unfold kept, kept_atom. destruct drop, (N.eqb (ra_map b) 0); reflexivity. Qed.

(** * nodes *)
Definition is_atom_id (n : N) : Prop := exists i a, nth_error atoms i = Some a /\ kept a = true /\ idf i a = n.

Lemma inner_nodes_g id L : forall st,
  let st' := fold_left (lw_edge drop use atoms id) L st in
  (forall n x, assoc n (fst st) = Some x -> assoc n (fst st') = Some x) /\
  (forall n x, assoc n (fst st') = Some x -> assoc n (fst st) = Some x \/ n = id \/ is_atom_id n).
Proof.
  induction L as [|[j o] L IH]; intros st; [cbn; split; auto|]. cbn [fold_left].
  set (st1 := lw_edge drop use atoms id st (j, o)).
  assert ((forall n x, assoc n (fst st) = Some x -> assoc n (fst st1) = Some x) /\
          (forall n x, assoc n (fst st1) = Some x -> assoc n (fst st) = Some x \/ n = id \/ is_atom_id n)) as [K1 K2].
  { unfold st1, lw_edge. destruct (nth_error atoms j) as [b|] eqn:Ej; [|split; auto]. rewrite kept_cond.
    destruct (kept b) eqn:Kb; [|split; auto]. cbn [fst]. split.
    - intros n x A. rewrite !ensure_assoc, A. reflexivity.
    - intros n x A. rewrite !ensure_assoc in A. destruct (assoc n (fst st)) as [y|]; [left; exact A|].
      destruct (N.eqb_spec n id) as [->|]; [right; left; reflexivity|].
      destruct (N.eqb_spec n (atom_id use j b)) as [->|]; [|discriminate]. right. right. exists j, b. auto. }
  destruct (IH st1) as [I1 I2]. split.
  - intros n x A. apply I1. apply K1. exact A.
  - intros n x A. destruct (I2 n x A) as [B|[B|B]]; [|auto|auto]. apply K2 in B. exact B.
Qed.

Definition GInv1 (st : lw_state) (s : nat) : Prop :=
  forall i a, (i < s)%nat -> nth_error atoms i = Some a -> kept a = true -> assoc (idf i a) (fst st) = Some (Some (atom_node a)).
Definition GInv2 (st : lw_state) : Prop := forall n x, assoc n (fst st) = Some x -> is_atom_id n.

Lemma skip_cond a : drop && N.eqb (ra_map a) 0 = negb (kept a).
Proof. unfold kept, kept_atom. rewrite negb_involutive. reflexivity. Qed.

Lemma step_nodes_g st s a : nth_error atoms s = Some a -> GInv1 st s -> GInv2 st ->
  GInv1 (lw_atom drop use atoms bs st (s, a)) (S s) /\ GInv2 (lw_atom drop use atoms bs st (s, a)).
Proof.
  intros Es I1 I2. unfold lw_atom. rewrite skip_cond. destruct (kept a) eqn:Ka; cbn [negb].
  - set (st0 := (upsert (atom_id use s a) (Some (atom_node a)) (fst st), snd st)).
    destruct (inner_nodes_g (atom_id use s a) (atom_bonds bs s) st0) as [K1 K2]. split.
    + intros i c Hi Ei Kc. apply K1. unfold st0. cbn [fst]. rewrite upsert_assoc.
      destruct (N.eqb_spec (idf i c) (atom_id use s a)) as [E|Ne].
      * assert (i = s) as -> by (apply (ids_distinct i s c a Ei Es Kc Ka E)). rewrite Es in Ei. inversion Ei. reflexivity.
      * apply (I1 i c); [|exact Ei|exact Kc]. destruct (Nat.eq_dec i s) as [->|]; [rewrite Es in Ei; inversion Ei; subst; unfold idf in Ne; congruence|lia].
    + intros n x A. destruct (K2 n x A) as [B|[->|B]]; [| |exact B].
      * unfold st0 in B. cbn [fst] in B. rewrite upsert_assoc in B. destruct (N.eqb_spec n (atom_id use s a)) as [->|]; [exists s, a; auto|apply (I2 n x B)].
      * exists s, a. auto.
  - split; [|exact I2]. intros i c Hi Ei Kc. destruct (Nat.eq_dec i s) as [->|Hne].
    + rewrite Es in Ei. inversion Ei; subst c. congruence.
    + apply (I1 i c); [lia|exact Ei|exact Kc].
Qed.

Lemma gen_nodes_in n g : In (n, g) (gen_nodes drop use m) <->
  exists i a, nth_error atoms i = Some a /\ kept a = true /\ n = idf i a /\ g = atom_node a.
Proof.
  unfold gen_nodes. fold atoms. rewrite in_flat_map. split.
  - intros ([i a] & Iia & K). cbn [fst snd] in K. destruct (kept_atom drop a) eqn:Ka; [|destruct K]. destruct K as [K|[]]. inversion K; subst.
    apply In_nth_error in Iia. destruct Iia as (k & Ek). unfold enumerate in Ek. rewrite nth_error_enumerate_from in Ek.
    destruct (nth_error atoms k) as [a'|] eqn:E'; [|discriminate]. cbn in Ek.
    assert (k = i /\ a' = a) as [-> ->] by (inversion Ek; auto). exists i, a. auto.
  - intros (i & a & Ei & Ka & -> & ->). exists (i, a). split; [eapply nth_error_In; apply (enum_nth i a Ei)|]. cbn [fst snd]. unfold kept in Ka. rewrite Ka. left. reflexivity.
Qed.

Theorem light_labels_g g' : light_graph drop use m = Some g' -> forall n, label g' n = option_map Some (assoc n (gen_nodes drop use m)).
Proof.
  unfold light_graph. destruct (drop && negb use); [discriminate|]. intros E. inversion E; subst g'. clear E. intros n. unfold label. cbn [gnodes].
  fold atoms bs.
  destruct (fold_enumerate_inv (lw_atom drop use atoms bs) atoms (fun st s => GInv1 st s /\ GInv2 st)) with (st := ([], []) : lw_state) as [I1 I2].
  { intros st s a Es [J1 J2]. apply step_nodes_g; assumption. }
  { split; [intros i a Hi; lia|intros k x A; discriminate]. }
  destruct (assoc n (gen_nodes drop use m)) as [g|] eqn:L.
  - apply assoc_in in L. apply gen_nodes_in in L. destruct L as (i & a & Ei & Ka & -> & ->). cbn [option_map].
    apply (I1 i a); [|exact Ei|exact Ka]. apply nth_error_Some. rewrite Ei. discriminate.
  - cbn [option_map]. destruct (assoc n (fst (fold_left (lw_atom drop use atoms bs) (enumerate atoms) ([], [])))) as [x|] eqn:A; [|reflexivity].
    exfalso. destruct (I2 n x A) as (i & a & Ei & Ka & En). apply assoc_none in L. apply L. apply in_map_iff.
    exists (n, atom_node a). split; [reflexivity|]. apply gen_nodes_in. exists i, a. auto.
Qed.

(** * bonds *)
Lemma gen_ix_spec i : lookup_idx i (gen_ix drop use m) =
  match nth_error atoms i with Some a => if kept a then Some (idf i a) else None | None => None end.
Proof. unfold gen_ix, enumerate. fold atoms. rewrite (lookup_enum (kept_atom drop) (atom_id use) atoms i 0). cbn. rewrite Nat.sub_0_r. reflexivity. Qed.

Lemma gen_bonds_in u v o : In (u, v, o) (gen_bonds drop use m) <->
  exists i j a b, In (i, j, o) bs /\ nth_error atoms i = Some a /\ nth_error atoms j = Some b /\
    kept a = true /\ kept b = true /\ idf i a = u /\ idf j b = v.
Proof.
  unfold gen_bonds. rewrite in_flat_map. split.
  - intros ([[i j] x] & Ib & K). cbn [fst snd] in K. rewrite !gen_ix_spec in K.
    destruct (nth_error atoms i) as [a|] eqn:Ei; [|destruct K]. destruct (kept a) eqn:Ka; [|destruct K].
    destruct (nth_error atoms j) as [b|] eqn:Ej; [|destruct K]. destruct (kept b) eqn:Kb; [|destruct K].
    destruct K as [K|[]]. inversion K; subst. exists i, j, a, b. auto 10.
  - intros (i & j & a & b & Ib & Ei & Ej & Ka & Kb & <- & <-). exists (i, j, o). split; [exact Ib|]. cbn [fst snd].
    rewrite !gen_ix_spec, Ei, Ej, Ka, Kb. left. reflexivity.
Qed.


(** every edge the loop adds is an edge of transform: the edge map only grows, towards that of [gen_bonds] *)
Definition below (E : list (N * N * Z)) : Prop :=
  forall u v o, find_edge u v E = Some o -> find_edge u v (gen_bonds drop use m) = Some o.

Lemma upsert_below a b o E : below E -> find_edge a b (gen_bonds drop use m) = Some o ->
  below (upsert_edge a b o E) /\
  (forall u v x, find_edge u v E = Some x -> find_edge u v (upsert_edge a b o E) = Some x) /\
  find_edge a b (upsert_edge a b o E) = Some o.
Proof.
  intros B G.
  assert (forall u v, same_pair a b u v = true -> find_edge u v (gen_bonds drop use m) = Some o) as Gp
    by (intros u v P; rewrite <- (find_edge_same_pair _ a b u v P); exact G).
  split; [|split].
  - intros u v x. rewrite upsert_edge_find. destruct (same_pair a b u v) eqn:P; [|apply B].
    intros [= <-]. apply Gp. exact P.
  - intros u v x F. rewrite upsert_edge_find. destruct (same_pair a b u v) eqn:P; [|exact F].
    apply B in F. rewrite (Gp u v P) in F. exact F.
  - rewrite upsert_edge_find. replace (same_pair a b a b) with true; [reflexivity|].
    symmetry. apply same_pair_spec. auto.
Qed.

Lemma bond_is_edge i j o a b : In (i, j, o) bs \/ In (j, i, o) bs ->
  nth_error atoms i = Some a -> nth_error atoms j = Some b -> kept a = true -> kept b = true ->
  find_edge (idf i a) (idf j b) (gen_bonds drop use m) = Some o.
Proof.
  intros Ib Ei Ej Ka Kb. apply (simple_find_edge _ _ _ Hs).
  destruct Ib as [Ib|Ib]; [left|right]; apply gen_bonds_in; [exists i, j, a, b|exists j, i, b, a]; auto 10.
Qed.

(** the bond loop of one atom: nothing is lost, and each listed bond to a kept atom is there afterwards *)
Lemma inner_edges_g s a : nth_error atoms s = Some a -> kept a = true -> forall L st,
  (forall j o, In (j, o) L -> In (j, o) (atom_bonds bs s)) -> below (snd st) ->
  let st' := fold_left (lw_edge drop use atoms (idf s a)) L st in
  below (snd st') /\
  (forall u v x, find_edge u v (snd st) = Some x -> find_edge u v (snd st') = Some x) /\
  (forall j o b, In (j, o) L -> nth_error atoms j = Some b -> kept b = true -> find_edge (idf s a) (idf j b) (snd st') = Some o).
Proof.
  intros Es Ka. induction L as [|[j o] L IH]; intros st HL B; [cbn; split; [exact B|split; [auto|intros ? ? ? []]]|].
  cbn [fold_left]. set (st1 := lw_edge drop use atoms (idf s a) st (j, o)).
  assert (below (snd st1) /\
          (forall u v x, find_edge u v (snd st) = Some x -> find_edge u v (snd st1) = Some x) /\
          (forall b, nth_error atoms j = Some b -> kept b = true -> find_edge (idf s a) (idf j b) (snd st1) = Some o)) as (B1 & M1 & H1).
  { unfold st1, lw_edge. destruct (nth_error atoms j) as [b|] eqn:Ej; [|split; [exact B|split; [auto|discriminate]]].
    rewrite kept_cond. destruct (kept b) eqn:Kb; [|split; [exact B|split; [auto|intros b' [= <-]; congruence]]]. cbn [snd].
    destruct (upsert_below (idf s a) (atom_id use j b) o (snd st) B) as (U1 & U2 & U3).
    { apply bond_is_edge; auto. apply atom_bonds_in, HL. left. reflexivity. }
    split; [exact U1|split; [exact U2|intros b' [= <-] _; exact U3]]. }
  destruct (IH st1 (fun j' o' I => HL j' o' (or_intror I)) B1) as (B' & M' & H'). split; [exact B'|split].
  - intros u v x F. apply M', M1, F.
  - intros j' o' b [[= <- <-]|I] Ej Kb; [apply M', H1; assumption|apply (H' j' o' b I Ej Kb)].
Qed.

(** once an atom has had its turn, its bonds to kept atoms are edges *)
Definition done (E : list (N * N * Z)) (s : nat) : Prop :=
  forall i j o a b, In (i, j, o) bs \/ In (j, i, o) bs -> (i < s)%nat ->
    nth_error atoms i = Some a -> nth_error atoms j = Some b -> kept a = true -> kept b = true ->
    find_edge (idf i a) (idf j b) E = Some o.

Lemma step_edges_g st s a : nth_error atoms s = Some a -> below (snd st) /\ done (snd st) s ->
  below (snd (lw_atom drop use atoms bs st (s, a))) /\ done (snd (lw_atom drop use atoms bs st (s, a))) (S s).
Proof.
  intros Es [B D]. unfold lw_atom. rewrite skip_cond. destruct (kept a) eqn:Ka; cbn [negb].
  - destruct (inner_edges_g s a Es Ka (atom_bonds bs s) (upsert (atom_id use s a) (Some (atom_node a)) (fst st), snd st)
                (fun _ _ I => I) B) as (B' & M' & H'). split; [exact B'|].
    intros i j o c d Ib Hi Ei Ej Kc Kd. destruct (Nat.eq_dec i s) as [->|Hne].
    + rewrite Es in Ei. inversion Ei; subst c. apply (H' j o d); auto. apply atom_bonds_in. exact Ib.
    + apply M'. apply (D i j o c d); auto. lia.
  - split; [exact B|]. intros i j o c d Ib Hi Ei Ej Kc Kd. destruct (Nat.eq_dec i s) as [->|Hne].
    + rewrite Es in Ei. inversion Ei; subst c. congruence.
    + apply (D i j o c d); auto. lia.
Qed.

Theorem light_bonds_g g' : light_graph drop use m = Some g' -> forall u v, adj g' u v = find_edge u v (gen_bonds drop use m).
Proof.
  unfold light_graph. destruct (drop && negb use); [discriminate|]. intros E. inversion E; subst g'. clear E. intros u v. unfold adj. cbn [gedges].
  fold atoms bs.
  destruct (fold_enumerate_inv (lw_atom drop use atoms bs) atoms (fun st s => below (snd st) /\ done (snd st) s)) with (st := ([], []) : lw_state) as [B D].
  { intros st s a. apply step_edges_g. }
  { split; [intros ? ? ? F; discriminate|intros i j o a b _ Hi; lia]. }
  destruct (find_edge u v (gen_bonds drop use m)) as [o|] eqn:G.
  - assert (forall i a, nth_error atoms i = Some a -> (i < length atoms)%nat) as Lt by (intros i a Ei; apply nth_error_Some; congruence).
    apply find_edge_some_in in G. destruct G as [G|G]; apply gen_bonds_in in G; destruct G as (i & j & a & b & Ib & Ei & Ej & Ka & Kb & <- & <-).
    + apply (D i j o a b); eauto.
    + rewrite find_edge_sym. apply (D i j o a b); eauto.
  - destruct (find_edge u v (snd (fold_left (lw_atom drop use atoms bs) (enumerate atoms) ([], [])))) as [o|] eqn:F; [|reflexivity].
    apply B in F. congruence.
Qed.

(** C01_light_builder_general *)
Theorem light_is_transform_general : drop && negb use = false ->
  exists g g', mol_to_graph drop use m = Some g /\ light_graph drop use m = Some g' /\
    (forall n, label g' n = option_map Some (label g n)) /\ (forall u v, adj g' u v = adj g u v).
Proof.
  intros Ef. exists (LG (gen_nodes drop use m) (gen_bonds drop use m)).
  destruct (light_graph drop use m) as [g'|] eqn:EL; [|unfold light_graph in EL; rewrite Ef in EL; discriminate].
  exists g'. split; [apply mol_to_graph_general; assumption|]. split; [reflexivity|]. split.
  - intros n. apply (light_labels_g g' EL n).
  - intros u v. apply (light_bonds_g g' EL u v).
Qed.
End LightGen.

(** * the flags of rsmi_to_graph *)
(** C01_light_builder: labels and bonds of transform *)
Theorem light_is_transform (m : rmol) : rmol_ok m -> forall g', light_graph true true m = Some g' ->
  (forall n, label g' n = option_map Some (label (graph_of m) n)) /\ (forall u v, adj g' u v = adj (graph_of m) u v).
Proof.
  intros [Hn Hs] g' E. rewrite <- gen_nodes_tt in Hn. rewrite <- gen_bonds_tt in Hs. split.
  - intros n. rewrite (light_labels_g m true true Hn Hs g' E n), gen_nodes_tt. reflexivity.
  - intros u v. rewrite (light_bonds_g m true true Hn Hs g' E u v), gen_bonds_tt. reflexivity.
Qed.

Section Light.
Variable m : rmol.
Let atoms := rm_atoms m.
Let bs := rm_bonds m.

Definition bond_lt (s : nat) (u v : N) (o : Z) : Prop :=
  exists i j a b, (In (i, j, o) bs \/ In (j, i, o) bs) /\ nth_error atoms i = Some a /\ nth_error atoms j = Some b /\
    is_mapped a = true /\ is_mapped b = true /\ ra_map a = u /\ ra_map b = v /\ (i < s \/ j < s)%nat.

Lemma bond_lt_sym s u v o : bond_lt s u v o -> bond_lt s v u o.
Proof. intros (i & j & a & b & K1 & K2 & K3 & K4 & K5 & K6 & K7 & K8). exists j, i, b, a. repeat split; auto; tauto. Qed.
End Light.

Example C01_light_builder_nonvacuous :
  rmol_ok ex_mr /\ exists g', light_graph true true ex_mr = Some g' /\ gedges g' = [(1%N, 2%N, 2%Z)] /\ map fst (gnodes g') = [1; 2; 3]%N /\
  (forall n, label g' n = option_map Some (label (graph_of ex_mr) n)) /\ (forall u v, adj g' u v = adj (graph_of ex_mr) u v).
Proof.
  split; [exact ex_mr_ok|]. eexists. split; [reflexivity|]. split; [reflexivity|]. split; [reflexivity|].
  apply (light_is_transform ex_mr ex_mr_ok). reflexivity.
Qed.
