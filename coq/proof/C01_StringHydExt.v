(** C01 — implicit_hydrogen depends only on the labelled graph (labels and adjacency), not on the order of its lists *)
From Coq Require Import List NArith ZArith Bool Permutation.
From SK Require Import lib.LGraph lib.C01_GraphLemmas model.C01_Model model.C02_Model model.C01_String proof.C01_Proof proof.C01_StringHyd.
Import ListNotations.
Local Open Scope Z_scope.

Lemma filter_length_same_members (p : N -> bool) (l1 l2 : list N) :
  NoDup l1 -> NoDup l2 -> (forall x, In x l1 <-> In x l2) -> length (filter p l1) = length (filter p l2).
Proof.
  intros N1 N2 HM. apply Permutation_length. apply NoDup_Permutation; try (apply NoDup_filter; assumption).
  intros x. rewrite !filter_In, HM. reflexivity.
Qed.

Lemma mem_same_members (l1 l2 : list N) x : (forall y, In y l1 <-> In y l2) -> mem x l1 = mem x l2.
Proof. intros HM. apply eq_true_iff_eq. rewrite !mem_spec. apply HM. Qed.

(** two well-formed graphs with the same hydrogens, the same preserved hydrogens and the same bond map:
    every quantity the folding reads agrees *)
Section Ext.
Variables g1 g2 : mgraph.
Hypothesis W1 : wf g1.
Hypothesis W2 : wf g2.
Hypothesis HH : forall n, is_Hn g1 n = is_Hn g2 n.
Hypothesis HP : forall pres h, In h (preserved g1 pres) <-> In h (preserved g2 pres).
Hypothesis HA : forall u v, adj g1 u v = adj g2 u v.

Lemma nbrs_members u x : In x (nbrs g1 u) <-> In x (nbrs g2 u).
Proof. rewrite !in_nbrs, HA. reflexivity. Qed.

Lemma count_h_ext n : count_h g1 n = count_h g2 n.
Proof.
  unfold count_h. f_equal. rewrite (filter_ext (is_Hn g1) (is_Hn g2)) by apply HH.
  apply filter_length_same_members; [apply nbrs_nodup; exact W1|apply nbrs_nodup; exact W2|apply nbrs_members].
Qed.

Lemma count_pres_ext pres n : count_pres g1 pres n = count_pres g2 pres n.
Proof.
  unfold count_pres. f_equal.
  rewrite (filter_ext (fun h => mem n (nbrs g1 h)) (fun h => mem n (nbrs g2 h)))
    by (intros h; apply mem_same_members, nbrs_members).
  apply filter_length_same_members; [apply preserved_nodup; exact W1|apply preserved_nodup; exact W2|apply HP].
Qed.

Lemma has_heavy_ext n : has_heavy g1 n = has_heavy g2 n.
Proof.
  apply eq_true_iff_eq. rewrite !has_heavy_spec.
  split; intros (m & I & Hm); exists m; (split; [apply nbrs_members; exact I|]); [rewrite <- HH|rewrite HH]; exact Hm.
Qed.

Lemma ih_removed_ext pres n : ih_removed g1 pres n = ih_removed g2 pres n.
Proof. unfold ih_removed. rewrite HH, (mem_same_members _ _ n (HP pres)), has_heavy_ext. reflexivity. Qed.

Lemma ih_adj_ext pres u v : adj (implicit_hydrogen g1 pres) u v = adj (implicit_hydrogen g2 pres) u v.
Proof. rewrite !ih_adj, !ih_removed_ext, HA. reflexivity. Qed.

(** the new label of a node of g1, with everything but the old label read in g2 *)
Lemma ih_label_ext pres n :
  label (implicit_hydrogen g1 pres) n =
  match label g1 n with
  | None => None
  | Some a => if is_H a then (if mem n (preserved g2 pres) || negb (has_heavy g2 n) then Some a else None)
              else Some (set_hc a (g_hc a + count_h g2 n - count_pres g2 pres n))
  end.
Proof.
  rewrite (proj1 (implicit_hydrogen_spec g1 pres W1)).
  rewrite (mem_same_members _ _ n (HP pres)), has_heavy_ext, count_h_ext, count_pres_ext. reflexivity.
Qed.
End Ext.

Theorem implicit_hydrogen_ext (g1 g2 : mgraph) : wf g1 -> wf g2 ->
  (forall n, label g1 n = label g2 n) -> (forall u v, adj g1 u v = adj g2 u v) ->
  forall pres, geq (implicit_hydrogen g1 pres) (implicit_hydrogen g2 pres).
Proof.
  intros W1 W2 HL HA pres.
  assert (forall n, is_Hn g1 n = is_Hn g2 n) as HH by (intros n; unfold is_Hn; rewrite HL; reflexivity).
  assert (forall p h, In h (preserved g1 p) <-> In h (preserved g2 p)) as HP
    by (intros p h; rewrite (preserved_spec g1 p h W1), (preserved_spec g2 p h W2), HL; reflexivity).
  split.
  - intros n. rewrite (ih_label_ext g1 g2 W1 W2 HH HP HA), HL. symmetry. apply (implicit_hydrogen_spec g2 pres W2).
  - intros u v. apply ih_adj_ext; assumption.
Qed.

(** non-vacuity: the same molecule graph with its node and edge lists in another order *)
Definition ex_gh2 : mgraph :=
  LG [(4%N, GN EL_H false 0 0 None 4); (3%N, GN EL_H false 0 0 None 3); (1%N, GN 70%N false 0 0 None 1); (2%N, GN EL_H false 0 0 None 2)]
     [(4%N, 1%N, 2); (1%N, 3%N, 2); (2%N, 1%N, 2)].
Definition ex_gh1 : mgraph :=
  LG [(1%N, GN 70%N false 0 0 None 1); (2%N, GN EL_H false 0 0 None 2); (3%N, GN EL_H false 0 0 None 3); (4%N, GN EL_H false 0 0 None 4)]
     [(1%N, 2%N, 2); (3%N, 1%N, 2); (1%N, 4%N, 2)].
Example C01_implicit_hydrogen_ext_nonvacuous :
  ex_gh1 <> ex_gh2 /\ implicit_hydrogen ex_gh1 [2; 3] <> implicit_hydrogen ex_gh2 [2; 3] /\
  (forall n, In n [1; 2; 3; 4; 5]%N -> label (implicit_hydrogen ex_gh1 [2; 3]) n = label (implicit_hydrogen ex_gh2 [2; 3]) n) /\
  option_map g_hc (label (implicit_hydrogen ex_gh2 [2; 3]) 1%N) = Some 1.
Proof.
  split; [discriminate|]. split; [intros E; vm_compute in E; discriminate|]. split; [|reflexivity].
  intros n [<-|[<-|[<-|[<-|[<-|[]]]]]]; reflexivity.
Qed.
