(** C02 — idempotence of get_rc with options needs element_key to keep the element and, under disconnected, typesGH:
    witnesses; non-vacuity of the renumbering and idempotence theorems of proof/C02_Opts.v. *)
From Coq Require Import List NArith ZArith Bool.
From SK Require Import lib.LGraph lib.C01_GraphLemmas model.C01_Model model.C02_Model proof.C02_Opts proof.C02_Wfb.
Import ListNotations.
Local Open Scope Z_scope.

Section Idem.
Variables (K : keysel) (d m : bool) (g : xits).
Hypothesis Kel : k_el K = true.
Hypothesis W : wf g.
Local Notation R := (get_rc_x K d m g).

(** a hydrogen of the centre is a hydrogen of the ITS: the centre keeps the element *)
Lemma is_h_R_true n : is_h_x R n = true -> is_h_x g n = true.
Proof.
  unfold is_h_x at 1. destruct (label R n) as [b|] eqn:L; [|discriminate].
  apply (rcg_labels (sel_attr K) (sel_attr_hh K) ish_x charge_changed d m g (proj1 W)) in L.
  destruct L as (a & La & [-> | ->]); unfold is_h_x; rewrite La; simpl; rewrite Kel; auto.
Qed.
End Idem.

(** keeping [element] matters: without it the H-H bonds of the centre are not H-H bonds of the centre's centre *)
Definition hh2 : xits :=
  LG [(1%N, XN (Some 2%N) (Some 0) (Some 1) None None None None); (2%N, XN (Some 2%N) (Some 0) (Some 2) None None None None)]
     [(1%N, 2%N, (IE 2 2 0, None))].

Lemma hh2_wf : wf hh2.
Proof. apply wfb_sound. reflexivity. Qed.

Theorem rcx_idem_needs_element : exists (K : keysel) (g : xits),
  wf g /\ k_gh K = true /\ length (gnodes (get_rc_x K false false g)) = 2%nat /\
  gnodes (get_rc_x K false false (get_rc_x K false false g)) = [].
Proof. exists (KS false true true true false false false), hh2. split; [exact hh2_wf|vm_compute; repeat split]. Qed.

(** idempotence of the variants needs typesGH: an isolated charge-changing atom is in the disconnected centre, but with
    element_key = [element] it has lost typesGH there and is not in the centre of the centre *)
Definition cc1 : xits :=
  LG [(3%N, XN (Some 82%N) (Some (-1)) (Some 3) None None None (Some (NA 82%N false 1 (-1) [], NA 82%N false 2 0 [])))] [].
Theorem rcx_idem_needs_typesGH : exists (K : keysel) (g : xits),
  wf g /\ k_el K = true /\ length (gnodes (get_rc_x K true false g)) = 1%nat /\
  gnodes (get_rc_x K true false (get_rc_x K true false g)) = [].
Proof.
  exists (KS true false false false false false false), cc1. split; [|vm_compute; repeat split].
  apply wfb_sound. reflexivity.
Qed.

(** non-vacuity *)
Example C02_rcx_equivariant_nonvacuous :
  get_rc_x K_default true true (relabel (N.add 10) hh2) = relabel (N.add 10) (get_rc_x K_default true true hh2) /\
  length (gnodes (get_rc_x K_default true true hh2)) = 2%nat.
Proof. split; [apply rcx_equivariant; intros a b; apply N.add_cancel_l|reflexivity]. Qed.

Example C02_rcx_idem_nonvacuous :
  geq (get_rc_x K_default true true (get_rc_x K_default true true hh2)) (get_rc_x K_default true true hh2) /\
  length (gedges (get_rc_x K_default true true hh2)) = 1%nat.
Proof. split; [apply rcx_idem; [reflexivity|reflexivity|exact hh2_wf]|reflexivity]. Qed.
