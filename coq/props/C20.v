(** C20 — siphons, traps and pathway realizability match their Petri-net definitions.
    Statements, each proved by a lemma of proof/C20_*.v or a short assembly of such lemmas.  The notions used (siphon, trap, minimal_among, same_set, antichain, weight,
    ordering, realizes, nonneg, markings_along) are defined in proof/C20_Spec.v, [path] (firing
    sequences of a net at the level of marking tuples) in proof/C20_Bfs.v. *)
From Coq Require Import ZArith NArith List Lia Permutation.
Import ListNotations.
From SK Require Import model.C20_Model proof.C20_Spec proof.C20_Siphon proof.C20_Petri proof.C20_Bfs proof.C20_Build proof.C20_Main proof.C20_Hist proof.C20_Analyzer proof.C20_Undirected proof.C20_Order proof.C20_Complete model.C20_Persist proof.C20_PersistProof model.C20_Inputs proof.C20_InputsProof model.C20_RawModel proof.C20_Raw.
Local Open Scope nat_scope.

(** The index predicate [_is_siphon_indices] is the Petri-net definition: for every network over the
    species 0..n-1 and every set X of species indices, evaluated on the bipartite export of the
    network exactly as [find_siphons] calls it. *)
Theorem C20_siphon_pred :
  forall (n : nat) (rs : list rxn) (X : list nat),
  wf_net n rs -> in_range n X ->
  let G := bipartite_of n rs in
  is_siphon_indices G (species_nodes_sorted G) (g_reactions G) X = true <-> siphon rs X.
Proof. intros n rs X Hwf HX. exact (siphon_pred n rs Hwf X HX). Qed.
Print Assumptions C20_siphon_pred.

(** Same for [_is_trap_indices]. *)
Theorem C20_trap_pred :
  forall (n : nat) (rs : list rxn) (X : list nat),
  wf_net n rs -> in_range n X ->
  let G := bipartite_of n rs in
  is_trap_indices G (species_nodes_sorted G) (g_reactions G) X = true <-> trap rs X.
Proof. intros n rs X Hwf HX. exact (trap_pred n rs Hwf X HX). Qed.
Print Assumptions C20_trap_pred.

(** [_minimal_sets] on ANY candidate list (any order, duplicates allowed) returns exactly the
    inclusion-minimal candidates, each once. *)
Theorem C20_minimal_sets :
  forall (cands : list (list nat)),
  (forall X, In X (minimal_sets cands) ->
     In X cands /\ forall T, In T cands -> incl T X -> incl X T) /\
  (forall X, In X cands -> (forall T, In T cands -> incl T X -> incl X T) ->
     exists X', In X' (minimal_sets cands) /\ same_set X' X) /\
  antichain (minimal_sets cands).
Proof.
  intros cands. split; [exact (minimal_sets_sound cands)|].
  split; [exact (minimal_sets_complete cands)|exact (minimal_sets_antichain cands)].
Qed.
Print Assumptions C20_minimal_sets.

(** [find_siphons] on the export of any network with at least one species and one reaction: the reported
    sets are exactly the inclusion-minimal non-empty siphons — minimal among the siphons of EVERY size —
    that have at most max_size members (all of them when max_size is None), each reported once. *)
Theorem C20_find_siphons :
  forall (n : nat) (rs : list rxn) (max_size : option nat),
  wf_net n rs -> n <> 0 -> rs <> [] ->
  exists out, find_siphons (bipartite_of n rs) max_size = Some out /\
    (forall X, In X out ->
       in_range n X /\ length X <= match max_size with None => n | Some k => k end /\
       minimal_among (fun Y => in_range n Y /\ siphon rs Y) X) /\
    (forall Y, NoDup Y -> length Y <= match max_size with None => n | Some k => k end ->
       minimal_among (fun Y => in_range n Y /\ siphon rs Y) Y ->
       exists X, In X out /\ same_set X Y) /\
    antichain out.
Proof. unfold find_siphons. rewrite is_siphon_closed, siphon_closed. exact (find_closed_spec Product Reactant). Qed.
Print Assumptions C20_find_siphons.

(** [find_traps] on the export of any network with at least one species and one reaction: the reported
    sets are exactly the inclusion-minimal non-empty traps — minimal among the traps of EVERY size —
    that have at most max_size members (all of them when max_size is None), each reported once. *)
Theorem C20_find_traps :
  forall (n : nat) (rs : list rxn) (max_size : option nat),
  wf_net n rs -> n <> 0 -> rs <> [] ->
  exists out, find_traps (bipartite_of n rs) max_size = Some out /\
    (forall X, In X out ->
       in_range n X /\ length X <= match max_size with None => n | Some k => k end /\
       minimal_among (fun Y => in_range n Y /\ trap rs Y) X) /\
    (forall Y, NoDup Y -> length Y <= match max_size with None => n | Some k => k end ->
       minimal_among (fun Y => in_range n Y /\ trap rs Y) Y ->
       exists X, In X out /\ same_set X Y) /\
    antichain out.
Proof. unfold find_traps. rewrite is_trap_closed, trap_closed. exact (find_closed_spec Reactant Product). Qed.
Print Assumptions C20_find_traps.

(** Firing rule: a transition is enabled exactly when the marking covers its reactants; firing changes
    the marking by products minus reactants at every place; the tuple encoding reads the marking at
    the places in index order. *)
Theorem C20_fire :
  forall (t : transition) (m : dict),
  (enabled_t t m = true <-> forall p w, In (p, w) (t_pre t) -> (w <= get m p)%Z) /\
  (forall p, get (fire_t t m) p = (get m p - weight (t_pre t) p + weight (t_post t) p)%Z) /\
  (forall net i p, nth_error (pn_places net) i = Some p ->
                   nth_error (marking_to_tuple net (fire_t t m)) i = Some (get (fire_t t m) p)).
Proof.
  intros t m. split; [exact (enabled_t_spec t m)|]. split; [exact (fire_t_spec t m)|].
  intros net i p. exact (marking_to_tuple_nth net (fire_t t m) i p).
Qed.
Print Assumptions C20_fire.

(** The fuel that makes the [while q] loop structurally recursive is never exhausted. *)
Theorem C20_bfs_fuel_enough :
  forall net target max_states max_depth q visited nen nfire,
  bo_verdict (bfs (S (N.to_nat max_states)) net target max_states max_depth q visited 0 nen nfire)
  <> OutOfFuel.
Proof. intros. apply bfs_fuel; simpl; lia. Qed.
Print Assumptions C20_bfs_fuel_enough.

(** Soundness of [is_realizable], for every vertex list, edge list, flow and pair of bounds: a returned
    sequence fires each edge exactly flow times, every step is covered by the current marking
    (starting from the zero marking) and the final marking is zero again; with unique species per
    tail (a Python dict) every marking passed through is non-negative. *)
Theorem C20_realizable_sound :
  forall (vertices : list N) (edges : list edge) (flow : list Z) (max_states max_depth : N) (sq : list N),
  bo_verdict (is_realizable (build_petri_net_from_flow vertices edges flow) max_states max_depth) = Found sq ->
  realizes edges flow sq /\
  ((forall e, In e edges -> NoDup (map fst (fst e))) -> Forall nonneg (markings_along edges zero sq)).
Proof. exact realizable_sound. Qed.
Print Assumptions C20_realizable_sound.

(** Completeness within the bounds — "no pathway that has such an ordering within the search bounds is reported
    unrealizable" — stated on the pathway itself (proof/C20_Complete.v).  For every vertex list, edge list, flow and
    pair of bounds: if some ordering fires each edge exactly flow times, covered at every step, back to zero ([realizes]);
    the states (how often each edge has fired, species marking) reachable from (nothing fired, zero) by covered firings that
    never fire an edge more often than its flow are covered by a list [R] of at most max_states elements; and the sum of the
    positive flows ([total_flow]) is at most max_depth — then [is_realizable] returns a sequence (which, by
    [C20_realizable_sound], is such an ordering).  Ingredients: the converse simulation (an ordering of the pathway IS a
    firing sequence of the extended net from M0 to MT), one supply token consumed per firing (so no firing sequence is
    longer than the sum of the positive flows), and a reachable extended marking is determined by (fired counts, species
    marking) — on top of the search-level completeness below. *)
Theorem C20_realizable_complete :
  forall (vertices : list N) (edges : list edge) (flow : list Z) (max_states max_depth : N)
         (R : list (list Z * smarking)),
  (exists sq, realizes edges flow sq) ->
  (forall sq m, ordering edges zero sq m ->
                (forall j, In j sq -> N.to_nat j < length edges) ->
                (forall j, In j sq -> (count j sq <= nth (N.to_nat j) flow 0)%Z) ->
     exists cm, In cm R /\ (forall k, k < length edges -> nth k (fst cm) 0%Z = count (N.of_nat k) sq) /\
                (forall x, snd cm x = m x)) ->
  (N.of_nat (length R) <= max_states)%N ->
  (total_flow edges flow <= Z.of_N max_depth)%Z ->
  exists sq', bo_verdict (is_realizable (build_petri_net_from_flow vertices edges flow) max_states max_depth)
              = Found sq'.
Proof. exact is_realizable_complete_pathway. Qed.
Print Assumptions C20_realizable_complete.

(** The search-level form of the same (premises stated on the extended Petri net that the code builds: places = species
    + one supply and one target place per edge): a firing sequence from M0 to MT exists, the markings reachable from M0 fit
    into a list of at most max_states elements, and no firing sequence from M0 is longer than max_depth.  Proved in full
    (the name's "partial" refers to where the premises are stated); [C20_realizable_complete] above discharges the three
    premises from pathway-level ones. *)
Theorem C20_realizable_complete_partial :
  forall (vertices : list N) (edges : list edge) (flow : list Z) (max_states max_depth : N) (R : list tuple),
  let b := build_petri_net_from_flow vertices edges flow in
  let net := b_net b in
  let start := marking_to_tuple net (b_M0 b) in
  let target := marking_to_tuple net (b_MT b) in
  (exists sq, path net start sq target) ->
  (forall s m, path net start s m -> In m R) ->
  (N.of_nat (length R) <= max_states)%N ->
  (forall s m, path net start s m -> (N.of_nat (length s) <= max_depth)%N) ->
  exists sq', bo_verdict (is_realizable b max_states max_depth) = Found sq'.
Proof. exact is_realizable_complete. Qed.
Print Assumptions C20_realizable_complete_partial.


(** Call histories on ONE object ([last_flow], [built_after], [cert_plain], [fresh] are defined in proof/C20_Hist.v: the flow
    loaded after a list of calls, whether a net is built after it, whether the certificate field stems from a plain search
    — i.e. no is_borrow_realizable since the field was last written or cleared —, the state of a fresh object loaded
    with a flow and built or not).  After ANY sequence of is_realizable / is_scaled_realizable / is_borrow_realizable /
    certificate / build_petri_net_from_flow / load_hypergraph_and_flow calls the object holds the flow loaded last, its
    net and markings are exactly those built from that flow (or absent right after a reload) — never a scaled flow's, never
    borrowed tokens —, and a stored certificate of a plain search is a correct firing sequence of that flow. *)
Theorem C20_history_state :
  forall (cf : pr_config) (V : list N) (E : list edge) (flow : list Z) (ops : list pr_op),
  let st := pr_exec cf V E (pr_loaded flow) ops in
  let fl := last_flow flow ops in
  pr_flow st = fl /\
  pr_built st = (if built_after false ops then Some (build_petri_net_from_flow V E fl) else None) /\
  (forall sq, cert_plain true ops = true -> pr_cert st = Some sq ->
     realizes E fl sq /\
     ((forall e, In e E -> NoDup (map fst (fst e))) -> Forall nonneg (markings_along E zero sq))).
Proof. exact main_history_state. Qed.
Print Assumptions C20_history_state.

(** History independence: the answer of every call at every position of every history ([pr_run] is what the
    correspondence evaluates) equals the answer a FRESH object — loaded with the current flow, built iff the
    history has built — gives to the same call, and it leaves the same flow, net and markings behind.
    (The [certificate] property returns the stored field, characterised by [C20_history_state].) *)
Theorem C20_history_independence :
  forall (cf : pr_config) (V : list N) (E : list edge) (flow : list Z) (ops1 : list pr_op) (op : pr_op) (ops2 : list pr_op),
  let st := pr_exec cf V E (pr_loaded flow) ops1 in
  let fr := fresh cf V E (last_flow flow ops1) (built_after false ops1) in
  nth_error (pr_run cf V E (pr_loaded flow) (ops1 ++ op :: ops2)) (length ops1) =
    Some (snd (pr_step cf V E st op), fst (pr_step cf V E st op)) /\
  snd (pr_step cf V E st op) =
    match op with
    | OpCert => ACert (pr_cert st)
    | _ => snd (pr_step cf V E fr op)
    end /\
  pr_flow (fst (pr_step cf V E st op)) = pr_flow (fst (pr_step cf V E fr op)) /\
  pr_built (fst (pr_step cf V E st op)) = pr_built (fst (pr_step cf V E fr op)).
Proof. exact main_history_independence. Qed.
Print Assumptions C20_history_independence.

(** PetriAnalyzer kept while the analysed network object is edited ([last_net], [computed_for] are defined in
    proof/C20_Analyzer.v: the network the analyzer refers to after a list of calls, and the network as it was at the last
    successful compute_siphons_traps()).  After ANY history of compute / read / edit calls the stored siphons and traps
    are exactly find_siphons / find_traps of the network AT THE LAST SUCCESSFUL COMPUTE (nothing before the first one) —
    with [C20_find_siphons] / [C20_find_traps]: exactly its minimal siphons / traps; a compute never keeps or returns an
    earlier result. *)
Theorem C20_analyzer_no_stale :
  forall (k : option nat) (net0 : network) (ops : list an_op),
  let st := an_exec k (AN net0 None None) ops in
  an_net st = last_net net0 ops /\
  match computed_for net0 None ops with
  | None => an_siphons st = None /\ an_traps st = None
  | Some net => an_siphons st = find_siphons (bipartite_of (fst net) (snd net)) k /\
                an_traps st = find_traps (bipartite_of (fst net) (snd net)) k
  end.
Proof. exact main_analyzer_no_stale. Qed.
Print Assumptions C20_analyzer_no_stale.

(** In particular a compute on a network with species and reactions stores the results of the CURRENT network,
    whatever the history before it. *)
Theorem C20_analyzer_compute_current :
  forall (k : option nat) (net0 : network) (ops : list an_op),
  let cur := last_net net0 ops in
  computable cur = true ->
  let st := an_exec k (AN net0 None None) (ops ++ [AnCompute]) in
  an_siphons st = find_siphons (bipartite_of (fst cur) (snd cur)) k /\
  an_traps st = find_traps (bipartite_of (fst cur) (snd cur)) k.
Proof. exact main_analyzer_compute_current. Qed.
Print Assumptions C20_analyzer_compute_current.

(** A read at any position of any history ([an_run] is what the correspondence evaluates) returns the stored fields
    characterised by [C20_analyzer_no_stale]. *)
Theorem C20_analyzer_read :
  forall (k : option nat) (st : an_state) (ops1 ops2 : list an_op),
  nth_error (an_run k st (ops1 ++ AnRead :: ops2)) (length ops1) =
  Some (AnSets (an_siphons (an_exec k st ops1)) (an_traps (an_exec k st ops1))).
Proof. exact main_analyzer_read. Qed.
Print Assumptions C20_analyzer_read.

(** Undirected bipartite inputs (an nx.Graph carrying the same node / edge attributes): _as_bipartite orients every incidence
    by its role, whichever way the undirected edge is stored ([undirected_view]: all reversed) — the graph the siphon / trap code
    then works on IS the directed export, so every theorem above applies to undirected inputs unchanged ([run_net] evaluates
    exactly this composition for the undirected cases). *)
Theorem C20_undirected_input :
  forall (n : nat) (rs : list rxn), wf_net n rs ->
  orient_undirected (undirected_view (bipartite_of n rs)) = bipartite_of n rs.
Proof. exact main_undirected_input. Qed.
Print Assumptions C20_undirected_input.

(** Caller-supplied graphs: whatever order the species nodes were inserted in ([with_species_order order]: the export with its
    species nodes listed in the order [order], any permutation of the ranks), _species_order hands out the same sorted nodes and
    the same sorted labels, and find_siphons / find_traps report exactly what they report for the export — so the theorems
    above hold for such graphs: index i of the checked node set and index i of the reported label are the same species. *)
Theorem C20_species_insertion_order :
  forall (n : nat) (rs : list rxn) (order : list nat) (max_size : option nat),
  Permutation order (seq 0 n) ->
  let G := bipartite_of n rs in
  let G' := with_species_order order G in
  species_nodes_sorted G' = species_nodes_sorted G /\
  species_labels G' = species_labels G /\
  find_siphons G' max_size = find_siphons G max_size /\
  find_traps G' max_size = find_traps G max_size.
Proof. exact main_species_insertion_order. Qed.
Print Assumptions C20_species_insertion_order.

(** siphon_persistence_condition (persistence.py; model coq/model/C20_Persist.v).  The floating-point P-semiflow basis is
    not modelled: the SUPPORTS of its columns are oracle inputs.  For every list of supports: on the export of a network with species
    and reactions the function answers, and it answers True exactly when every siphon reported by find_siphons — by
    [C20_find_siphons] exactly the inclusion-minimal non-empty siphons with at most max_siphon_size members — contains a
    non-empty support (no siphon: True; no column or only empty supports: False as soon as there is a siphon). *)
Theorem C20_persistence_condition :
  forall (n : nat) (rs : list rxn) (max_size : option nat) (supports : list (list nat)),
  wf_net n rs -> n <> 0 -> rs <> [] ->
  exists sip b, find_siphons (bipartite_of n rs) max_size = Some sip /\
    siphon_persistence_condition (bipartite_of n rs) max_size supports = Some b /\
    (b = true <-> forall S, In S sip -> exists T, In T supports /\ T <> [] /\ incl T S).
Proof. exact persistence_condition_spec. Qed.
Print Assumptions C20_persistence_condition.

(** PetriAnalyzer's persistence field under ANY history of compute_siphons_traps / check_persistence / compute_all / read / edit calls
    on one object ([anp_exec]; [base_ops] projects a history to the calls the base machine of [C20_analyzer_no_stale] sees, [checked_for]
    is the network and the semiflow supports of the last successful check_persistence / compute_all): the siphon / trap fields are
    those of the base machine, and the stored verdict is exactly the verdict for the network AS IT WAS at the last successful check —
    never an earlier one, never one for a network edited since. *)
Theorem C20_analyzer_persistence_no_stale :
  forall (k : option nat) (net0 : network) (ops : list anp_op),
  let st := anp_exec k (ANP (AN net0 None None) None) ops in
  anp_base st = an_exec k (AN net0 None None) (base_ops ops) /\
  anp_persist st = match checked_for net0 None ops with
                   | None => None
                   | Some (net, sup) => siphon_persistence_condition (bipartite_of (fst net) (snd net)) k sup
                   end.
Proof. exact anp_no_stale. Qed.
Print Assumptions C20_analyzer_persistence_no_stale.

(** a read at any position of [anp_run] (what the correspondence evaluates) returns the three stored fields *)
Theorem C20_analyzer_persistence_read :
  forall (k : option nat) (st : anp_state) (ops1 ops2 : list anp_op),
  nth_error (anp_run k st (ops1 ++ PBase AnRead :: ops2)) (length ops1) =
  Some (let s := anp_exec k st ops1 in PRead (an_siphons (anp_base s)) (an_traps (anp_base s)) (anp_persist s)).
Proof. exact anp_read. Qed.
Print Assumptions C20_analyzer_persistence_read.

(** The flow maps on the way into PathwayRealizability (model coq/model/C20_Inputs.v; evaluated by every flow case: the caller's map is
    handed to the model, the defaults are applied there).  Through hypergraph_to_pr_inputs an edge keeps the flow it was GIVEN — also an
    explicit 0 or a negative number — and gets 1 only when the mapping is None or has no entry for it; loaded directly an edge without
    an entry gets 0; entries for unknown edge ids never matter. *)
Theorem C20_flow_defaults :
  forall (nedges : nat) (given : option (list (N * Z))) (flow : list (N * Z)) (k : nat), k < nedges ->
  nth k (flow_via_hg nedges given) 0%Z =
    match given with
    | None => 1%Z
    | Some g => match assocZ (N.of_nat k) g with Some f => f | None => 1%Z end
    end /\
  nth k (flow_direct nedges flow) 0%Z = match assocZ (N.of_nat k) flow with Some f => f | None => 0%Z end /\
  length (flow_via_hg nedges given) = nedges /\ length (flow_direct nedges flow) = nedges.
Proof.
  intros nedges given flow k Hk. split; [exact (flow_via_hg_spec nedges given k Hk)|].
  split; [exact (flow_direct_spec nedges flow k Hk)|exact (flow_lengths nedges given flow)].
Qed.
Print Assumptions C20_flow_defaults.

(** Attribute layer (model coq/model/C20_RawModel.v; every caller-supplied DiGraph of the net cases goes through it, attributes present
    or absent as they are).  The graph the siphon / trap / persistence code works on — hence every predicate value, every reported set
    and the persistence verdict ([run_net_raw]) — depends only on each node's identifier, its two classification tests
    (kind == "species" or bipartite == 0 / kind == "reaction" or bipartite == 1) and its effective label (the label, else str(node)),
    and on each arc's end points, role and effective coefficient (stoich, else 1). *)
Theorem C20_attributes_normalised :
  forall (G G' : rgraph) (k : nat) (cands sup : list (list nat)),
  Forall2 (fun a b => rn_id a = rn_id b /\ species_like a = species_like b /\ reaction_like a = reaction_like b /\
                      label_of a = label_of b) (rg_nodes G) (rg_nodes G') ->
  Forall2 (fun a b => ra_src a = ra_src b /\ ra_dst a = ra_dst b /\ ra_role a = ra_role b /\ eff_stoich a = eff_stoich b)
          (rg_arcs G) (rg_arcs G') ->
  normalise G = normalise G' /\ run_net_raw G k cands sup = run_net_raw G' k cands sup.
Proof.
  intros G G' k cands sup Hn Ha. split; [exact (normalise_eqv G G' Hn Ha)|exact (run_net_raw_eqv G G' k cands sup Hn Ha)].
Qed.
Print Assumptions C20_attributes_normalised.

(** The fully annotated export, with its species nodes inserted in ANY order, normalises to the export of model/C20_Model.v:
    [bipartite_of] in label order, [with_species_order] otherwise — so [C20_siphon_pred] ... [C20_species_insertion_order] apply to
    what the code computes from it, and by [C20_attributes_normalised] from every attribute-equivalent graph (classification by one
    attribute only, labels left to the node ids, coefficients 1 left out). *)
Theorem C20_raw_export_normalised :
  forall (n : nat) (rs : list rxn) (order : list nat),
  normalise (raw_export (seq 0 n) n rs) = bipartite_of n rs /\
  (order <> [] -> normalise (raw_export order n rs) = with_species_order order (bipartite_of n rs)).
Proof.
  intros n rs order. split; [exact (normalise_raw_export_sorted n rs)|exact (normalise_raw_export_order order n rs)].
Qed.
Print Assumptions C20_raw_export_normalised.

(** Undirected inputs at the attribute level (conversion.py:_as_bipartite on an nx.Graph; [orient_raw]: every stored edge is oriented by
    its role, the reaction end found by kind == "reaction" or (kind absent and bipartite == 1)).  For every well-formed network, every
    insertion order of its species nodes and WHICHEVER way the undirected graph stores each edge ([flips]), orienting gives back the
    directed raw export — so [C20_raw_export_normalised] and everything that follows from it covers undirected inputs
    ([run_net_raw_und] evaluates normalise after orient_raw on the graph as networkx stores it). *)
Theorem C20_undirected_raw_input :
  forall (order : list nat) (n : nat) (rs : list rxn) (flips : list bool),
  wf_net n rs -> Forall (fun i => i < n) order ->
  orient_raw (undirected_raw flips (raw_export order n rs)) = raw_export order n rs.
Proof. intros order n rs flips Hwf Ho. exact (orient_undirected_raw order n rs Hwf Ho flips). Qed.
Print Assumptions C20_undirected_raw_input.
