From Coq Require Import NArith List Bool.
Import ListNotations.
From SK Require Import model.C14_Model proof.C14_Proof proof.C14_Batch proof.C14_Cluster model.C14_CrnModel proof.C14_Crn
  model.C14_WorkersModel proof.C14_Workers model.C14_BenchModel proof.C14_Bench model.C14_InputsModel proof.C14_Inputs model.C14_PoolModel proof.C14_Pool.
Local Open Scope N_scope.

(** Pinned key discipline (the repaired code): for EVERY allocator and collector behaviour (every legal
    trace: any address-reuse history, any collection schedule), every cache size (the code needs cache_maxsize >= 1: with 0 the
    eviction line raises StopIteration; the model's [tl] of an empty list is harmless) and cache on/off, each
    application returns execute(content of the substrate object, content of the rule object, inv). *)
Theorem C14_cache_transparent :
  forall (R : Type) (execute : N -> N -> bool -> R) (cache_on : bool) (cmax : nat)
         (tr : list event) (outs : list (bool * R)) (fin : state R),
    run R execute true cache_on cmax (init R) tr = (true, outs, fin) ->
    map snd outs = spec execute [] tr.
Proof. exact cache_transparent. Qed.
Print Assumptions C14_cache_transparent.

(** The same from ANY initial cache whose entries hold the result of their pinned objects — whatever
    the keys are (e.g. a pickled copy of the cache in a worker process, where the stored ids are
    meaningless): the identity check, not the key, makes a hit sound.  The premise is [Inv cs s] of
    proof/C14_Proof.v written out. *)
Theorem C14_cache_transparent_any_initial_cache :
  forall (R : Type) (execute : N -> N -> bool -> R) (cache_on : bool) (cmax : nat)
         (cs : list N) (s : state R) (tr : list event) (outs : list (bool * R)) (fin : state R),
    (next s = N.of_nat (length cs) /\
     Forall (fun x => (N.to_nat (o_id x) < length cs)%nat /\ nth (N.to_nat (o_id x)) cs 0 = o_cont x) (heap s) /\
     Forall (fun e => e_res e = execute (nth (N.to_nat (e_ps e)) cs 0) (nth (N.to_nat (e_pr e)) cs 0) (e_kinv e)
                      /\ (N.to_nat (e_ps e) < length cs)%nat /\ (N.to_nat (e_pr e) < length cs)%nat) (cache s)) ->
    run R execute true cache_on cmax s tr = (true, outs, fin) ->
    map snd outs = spec execute cs tr.
Proof. exact cache_transparent_from. Qed.
Print Assumptions C14_cache_transparent_any_initial_cache.

Theorem C14_cache_on_equals_off :
  forall (R : Type) (execute : N -> N -> bool -> R) (cmax : nat) (tr : list event)
         (outs1 : list (bool * R)) (fin1 : state R) (outs2 : list (bool * R)) (fin2 : state R),
    run R execute true true cmax (init R) tr = (true, outs1, fin1) ->
    run R execute true false cmax (init R) tr = (true, outs2, fin2) ->
    map snd outs1 = map snd outs2.
Proof. exact cache_on_equals_off. Qed.
Print Assumptions C14_cache_on_equals_off.

(** Unpinned discipline (the code before commit 4b75757): refuted by a two-entry history in which the
    allocator gives the freed first substrate's address to the second. *)
Theorem C14_cache_transparent_unpinned_refuted :
  exists (execute : N -> N -> bool -> list N) (tr : list event) (cmax : nat) outs fin,
    (1 <= cmax)%nat /\
    run (list N) execute false true cmax (init _) tr = (true, outs, fin) /\
    client_view tr = [CAlloc 10; CAlloc 20; CApply 0 1 false; CRelease 0; CAlloc 11; CApply 2 1 false] /\
    map snd outs <> spec execute [] tr.
Proof. exact cache_transparent_unpinned_refuted. Qed.
Print Assumptions C14_cache_transparent_unpinned_refuted.

(** BatchReactor.fit = map single: for every legal trace whose client part is the program of
    [calls] fit calls on one BatchReactor over [subs] (shared rule objects [pool] built before and
    dropped after), the outputs read off the applier's answers are, per call and per entry, the rules
    applied to that entry alone.  (The premise on the rule objects of a call is [robj_ok pool] of proof/C14_Batch.v
    written out; likewise in [C14_calls_are_maps] and [C14_bench_is_map].) *)
Theorem C14_batch_is_map :
  forall (execute : N -> N -> bool -> list N) (cache_on : bool) (cmax : nat) (dd : bool)
         (pool subs : list N) (calls : list (list rspec * bool))
         (tr : list event) (outs : list (bool * list N)) (fin : state (list N)),
    run (list N) execute true cache_on cmax (init _) tr = (true, outs, fin) ->
    client_view tr = batch_prog pool subs calls ->
    Forall (fun call => Forall (fun r => match r with RStr _ => True | RObj o => (N.to_nat o < length pool)%nat end)
                          (fst call)) calls ->
    fit_outputs dd (length subs) calls (map snd outs) =
    map (fun call => map (single execute dd (map (rule_content pool) (fst call)) (snd call)) subs) calls.
Proof. exact batch_is_map. Qed.
Print Assumptions C14_batch_is_map.

(** _dedupe: same elements, no repetition, and (complete characterisation from the right) the output
    only ever grows at its end, by an element not met before: order-preserving, first occurrences. *)
Theorem C14_dedupe_first_occurrences :
  dedupe [] = [] /\
  (forall l x, dedupe (l ++ [x]) = if existsb (N.eqb x) l then dedupe l else dedupe l ++ [x]) /\
  (forall l, NoDup (dedupe l)) /\ (forall l x, In x (dedupe l) <-> In x l) /\
  (forall l, dedupe (dedupe l) = dedupe l).
Proof.
  exact (conj dedupe_nil (conj dedupe_snoc (conj dedupe_NoDup (conj dedupe_In dedupe_idempotent)))).
Qed.
Print Assumptions C14_dedupe_first_occurrences.

(** Batched clustering = one-shot clustering, for every attribute: every batch size (0 encodes None) gives the one-shot
    class of every item (hence the same partition).  The two premises on [iso] are not used: the proof
    ([cfit_oneshot] of proof/C14_Cluster.v) holds for every [iso]. *)
Theorem C14_cluster_batches :
  forall (A : Type) (iso : A -> A -> bool) (att : A -> N),
    (forall x y, iso x y = true -> iso y x = true) ->
    (forall x y z, iso x y = true -> iso y z = true -> iso x z = true) ->
    forall (items : list A) (bs : nat), fst (cfit A iso att items [] bs) = oneshot A iso att items.
Proof. intros A iso att _ _. exact (cfit_oneshot A iso att). Qed.
Print Assumptions C14_cluster_batches.

Theorem C14_cluster_batches_templates :
  forall (A : Type) (iso : A -> A -> bool) (att : A -> N) (items : list A) (ts : list (A * nat)) (bs : nat),
    ts <> [] -> cfit A iso att items ts bs = cluster A iso att items ts.
Proof. exact cfit_templates. Qed.
Print Assumptions C14_cluster_batches_templates.

(** (Instance at the pool [par_map] of [C14_crn_pool_contract] below, where the pool's contract is an explicit premise.)
    Parallel versus serial network expansion (SynCRN.build; model coq/model/C14_CrnModel.v, evaluated by the
    correspondence for the serial run and for max_workers 1, 2, 3).  For every rule list (arities, contents),
    configuration, execution table, seed list and worker count the parallel build produces exactly the serial
    build: same species and event nodes with the same node ids, steps, rule indices, rule contents, application
    indices and arcs, same number of tasks per step.  Process-level parallelism is modelled as an
    order-preserving chunked map (executor.map contract; worker counts are compared at run time). *)
Theorem C14_crn_parallel_equals_serial :
  forall (c : crn_cfg) (parallel : bool) (workers : nat) (t : exec_table) (seeds : list (option N)),
  build c parallel workers t seeds = build c false 0%nat t seeds.
Proof. exact main_crn_parallel_equals_serial. Qed.
Print Assumptions C14_crn_parallel_equals_serial.

(** Every result handed to the integration step — serial or parallel, any worker count — carries the index of a
    rule of the rule list and the product mixtures obtained by executing THAT rule's content on the result's own
    reactant mixture: rules that cannot produce a task in a step (arity above max_components, every mixture
    already attempted, budget exhausted) never shift the attribution of the rules behind them. *)
Theorem C14_crn_results_attributed :
  forall (c : crn_cfg) (parallel : bool) (workers : nat) (t : exec_table)
         (index : list (N * N)) (pool frontier : list N) (seen : list (nat * mixt)) (r : result),
  In r (run_tasks parallel workers t
          (snd (tasks_of_rules c index pool frontier 0%nat (cc_rules c) seen (cc_max_tasks c) []))) ->
  exists ar cid,
    nth_error (cc_rules c) (fst (fst r)) = Some (ar, cid) /\
    snd r = exec_lookup t cid (snd (fst r)).
Proof. exact main_crn_results_attributed. Qed.
Print Assumptions C14_crn_results_attributed.

(** The same for successive build calls on ONE SynCRN object (the object's species index, graph, attempt and delta
    memories and application counters persist between the calls): every state reached and the task counts coincide. *)
Theorem C14_crn_builds_parallel_equals_serial :
  forall (c : crn_cfg) (parallel : bool) (workers : nat) (t : exec_table) (calls : list (list (option N))) (st0 : crn_state),
  builds_from c parallel workers t st0 calls = builds_from c false 0%nat t st0 calls.
Proof. exact main_crn_builds_parallel_equals_serial. Qed.
Print Assumptions C14_crn_builds_parallel_equals_serial.

(** (Instances at the pool [par_map] of [C14_rows_pool_contract] below, where the pool's contract is an explicit premise.)
    Parallel versus serial validation: for every per-row check, every table and every worker count, validate_smiles' per-row
    results are, row by row and in order, the single-row results, and results / success count / row count equal those of the
    serial run (joblib.Parallel modelled as an order-preserving chunked map — its contract; worker counts compared at run time). *)
Theorem C14_validate_workers :
  forall (A : Type) (n_jobs : nat) (check : A -> bool) (rows : list A),
  validate_column n_jobs check rows = validate_column 1%nat check rows /\
  fst (validate_column n_jobs check rows) = map check rows.
Proof. exact main_validate_workers. Qed.
Print Assumptions C14_validate_workers.

(** Parallel versus serial balance checking: for every worker count the two lists returned are exactly the balanced and the
    unbalanced rows, each in input order — failing rows in the middle of the list stay where they are. *)
Theorem C14_balance_workers :
  forall (A : Type) (n_jobs : nat) (check : A -> bool) (rows : list A),
  balance_split n_jobs check rows = (filter check rows, filter (fun r => negb (check r)) rows).
Proof. exact main_balance_workers. Qed.
Print Assumptions C14_balance_workers.

(** Worker processes (model coq/model/C14_WorkersModel.v).  A task sent to a joblib worker is pickled: the applier arrives
    as a COPY — its cache keys are the parent's addresses, meaningless in the worker, its pinned objects are copies with new
    identities and addresses ([ship]; sharing inside one pickle preserved).  For every parent history before the fit (any legal
    trace [tr0] from the empty state — e.g. serial work that filled the cache), every set of shipped root objects, every address
    assignment of the copies and every legal worker trace (any worker-side allocator / collector, so also one that hands a new
    substrate the address of a stale key), every application in the worker returns execute(contents of its two objects). *)
Theorem C14_worker_transparent :
  forall (execute : N -> N -> bool -> list N) (cache_on : bool) (cmax : nat)
         (tr0 : list event) (outs0 : list (bool * list N)) (sp : state (list N)) (roots addrs : list N)
         (tr : list event) (outs : list (bool * list N)) (fin : state (list N)),
    run (list N) execute true cache_on cmax (init _) tr0 = (true, outs0, sp) ->
    run (list N) execute true cache_on cmax (ship (contents_of tr0) sp roots addrs) tr = (true, outs, fin) ->
    map snd outs = spec execute (ship_contents (contents_of tr0) (ship_ids (cache sp) roots)) tr.
Proof. exact worker_transparent. Qed.
Print Assumptions C14_worker_transparent.

(** BatchReactor.fit with entry-level workers = map single: for EVERY order-preserving cut of the entry list into batches of tasks
    ([wchunks c], any c), every parent history, every address assignment per batch ([addrs_of k]) and every legal worker trace per
    batch whose client part is the closure [worker] applied to the entries of that batch, the concatenated per-entry outputs are
    the rules applied to each entry alone (contents of the rule objects as allocated in the parent) — whatever the shipped cache
    contains, cache on or off, every cache size. *)
Theorem C14_fit_workers :
  forall (execute : N -> N -> bool -> list N) (cache_on : bool) (cmax : nat) (dd : bool)
         (tr0 : list event) (outs0 : list (bool * list N)) (sp : state (list N)) (rules : list N) (inv : bool)
         (subs : list N) (c : nat) (addrs_of : nat -> list N) (traces : list (list event)),
  run (list N) execute true cache_on cmax (init _) tr0 = (true, outs0, sp) ->
  let cs := contents_of tr0 in
  let ids := ship_ids (cache sp) rules in
  Forall2 (fun chunk ktr =>
             fst (fst (run (list N) execute true cache_on cmax (ship cs sp rules (addrs_of (fst ktr))) (snd ktr))) = true /\
             client_view (snd ktr) = worker_prog (length ids) (map (fun r => index_of r ids) rules) inv chunk)
          (wchunks c subs) (combine (seq 0 (length traces)) traces) ->
  concat (map (fun x : list N * (nat * list event) =>
                 snd (worker_outputs execute cache_on cmax dd (ship cs sp rules (addrs_of (fst (snd x))))
                                     (length rules) (fst x) (snd (snd x))))
              (combine (wchunks c subs) (combine (seq 0 (length traces)) traces))) =
  map (single execute dd (map (fun r => nth (N.to_nat r) cs 0) rules) inv) subs.
Proof. exact fit_workers_is_map. Qed.
Print Assumptions C14_fit_workers.

(** Rule-level workers (parallel_rules, rule_n_jobs > 1): each application is a task of its own, shipped with the applier, the
    substrate and the rule; its answer is execute(contents), for every parent history and every legal worker trace. *)
Theorem C14_rule_task_workers :
  forall (execute : N -> N -> bool -> list N) (cache_on : bool) (cmax : nat)
         (tr0 : list event) (outs0 : list (bool * list N)) (sp : state (list N)) (s r : N) (addrs : list N) (inv : bool)
         (tr : list event) (outs : list (bool * list N)) (fin : state (list N)),
    run (list N) execute true cache_on cmax (init _) tr0 = (true, outs0, sp) ->
    let cs := contents_of tr0 in
    let ids := ship_ids (cache sp) [s; r] in
    run (list N) execute true cache_on cmax (ship cs sp [s; r] addrs) tr = (true, outs, fin) ->
    client_view tr = rule_task_prog (index_of s ids) (index_of r ids) inv ->
    map snd outs = [execute (nth (N.to_nat s) cs 0) (nth (N.to_nat r) cs 0) inv].
Proof. exact rule_task_transparent. Qed.
Print Assumptions C14_rule_task_workers.

(** Fit calls whose entry list differs from call to call on ONE BatchReactor object (same applier, same cache; model
    coq/model/C14_BenchModel.v): for every legal trace whose client part is the program of the calls, each call's outputs are,
    per entry of THAT call, the rules applied to that entry alone in the call's direction — nothing an earlier call processed
    (other entries, other direction) can leak into a later one. *)
Theorem C14_calls_are_maps :
  forall (execute : N -> N -> bool -> list N) (cache_on : bool) (cmax : nat) (dd : bool)
         (pool : list N) (calls : list call2)
         (tr : list event) (outs : list (bool * list N)) (fin : state (list N)),
    run (list N) execute true cache_on cmax (init _) tr = (true, outs, fin) ->
    client_view tr = batch_prog2 pool calls ->
    Forall (fun call : call2 => Forall (fun r => match r with RStr _ => True | RObj o => (N.to_nat o < length pool)%nat end)
                                  (fst (fst call))) calls ->
    fit_outputs2 dd calls (map snd outs) =
    map (fun call : call2 => map (single execute dd (map (rule_content pool) (fst (fst call))) (snd (fst call))) (snd call)) calls.
Proof. exact calls_are_maps. Qed.
Print Assumptions C14_calls_are_maps.

(** The Benchmark facade (benchmark.py): fit = a forward fit over the reactant sides followed by a backward fit over the product
    sides on the same object (host_key re-pointed in between); entry k receives exactly (rules applied forward to its reactant
    side alone, rules applied backward to its product side alone). *)
Theorem C14_bench_is_map :
  forall (execute : N -> N -> bool -> list N) (cache_on : bool) (cmax : nat) (dd : bool)
         (pool : list N) (rules : list rspec) (subs_r subs_p : list N)
         (tr : list event) (outs : list (bool * list N)) (fin : state (list N)),
    run (list N) execute true cache_on cmax (init _) tr = (true, outs, fin) ->
    client_view tr = batch_prog2 pool (bench_calls rules subs_r subs_p) ->
    Forall (fun r => match r with RStr _ => True | RObj o => (N.to_nat o < length pool)%nat end) rules ->
    bench_entries (fit_outputs2 dd (bench_calls rules subs_r subs_p) (map snd outs)) =
    combine (map (single execute dd (map (rule_content pool) rules) false) subs_r)
            (map (single execute dd (map (rule_content pool) rules) true) subs_p).
Proof. exact bench_is_map. Qed.
Print Assumptions C14_bench_is_map.

(** parse_input in front of dicts_balance_check (balance_check.py; model coq/model/C14_InputsModel.v): strings and dicts carrying the
    reaction key are kept, every other item (a dict without the key, None, a number) is skipped; for every worker count the two
    returned lists are exactly the balanced and the unbalanced ones among the KEPT items, each in input order. *)
Theorem C14_balance_input :
  forall (A : Type) (n_jobs : nat) (check : A -> bool) (items : list (bitem * A)),
  dicts_balance_check n_jobs check items =
  (filter check (parse_input items), filter (fun r => negb (check r)) (parse_input items)).
Proof. exact @balance_input. Qed.
Print Assumptions C14_balance_input.

(** THE POOL'S CONTRACT AS AN EXPLICIT PREMISE (model coq/model/C14_PoolModel.v: the functions of C14_CrnModel.v with the pool primitive
    — executor.map / joblib.Parallel — as a parameter [pm]).  [pool_contract pm]: for every chunk size, function and list, pm returns
    map f l (one result per item, in submission order).  Process pools are NOT verified to satisfy it (tested at run time for worker
    counts 1..8); everything else follows from it alone:
    network expansion — every state reached by successive build calls and the task counts — is the same for every pool satisfying the
    contract, parallel or not, any worker count. *)
Theorem C14_crn_pool_contract :
  forall (pm : pool_map), pool_contract pm ->
  forall (c : crn_cfg) (parallel : bool) (workers : nat) (t : exec_table) (calls : list (list (option N))) (st0 : crn_state),
  builds_from_with pm c parallel workers t st0 calls = builds_from_with pm c false 0%nat t st0 calls.
Proof. intros pm H c parallel workers t calls st0. exact (builds_with_parallel_equals_serial pm H c parallel workers t calls st0). Qed.
Print Assumptions C14_crn_pool_contract.

(** validation and balance checking under the contract alone *)
Theorem C14_rows_pool_contract :
  forall (pm : pool_map), pool_contract pm ->
  forall (A : Type) (n_jobs : nat) (check : A -> bool) (rows : list A),
  validate_column_with pm n_jobs check rows = validate_column_with pm 1%nat check rows /\
  fst (validate_column_with pm n_jobs check rows) = map check rows /\
  balance_split_with pm n_jobs check rows = (filter check rows, filter (fun r => negb (check r)) rows).
Proof.
  intros pm H A n_jobs check rows. destruct (validate_with_workers pm H n_jobs check rows) as [H1 H2].
  split; [exact H1|split; [exact H2|exact (balance_with_workers pm H n_jobs check rows)]].
Qed.
Print Assumptions C14_rows_pool_contract.

(** the pool of the executable model satisfies the contract, and the parametrised functions at that pool ARE the functions the
    correspondence evaluates (so the two theorems above specialise to [C14_crn_builds_parallel_equals_serial], [C14_validate_workers],
    [C14_balance_workers]) *)
Theorem C14_par_map_is_a_pool :
  pool_contract (@par_map) /\
  (forall c parallel workers t calls st0,
     builds_from_with (@par_map) c parallel workers t st0 calls = builds_from c parallel workers t st0 calls) /\
  (forall (A : Type) n_jobs (check : A -> bool) rows,
     validate_column_with (@par_map) n_jobs check rows = validate_column n_jobs check rows /\
     balance_split_with (@par_map) n_jobs check rows = balance_split n_jobs check rows).
Proof.
  split; [exact par_map_contract|split].
  - intros. apply builds_from_instance.
  - intros. apply rows_instances.
Qed.
Print Assumptions C14_par_map_is_a_pool.
