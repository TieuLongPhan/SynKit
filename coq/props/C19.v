(** C19 — complexes, linkage classes, weak reversibility and deficiency of model/C19_Model.v (the model of
    synkit/CRN/Props/deficiency.py after the repair of the edge walk).
    Vocabulary:
      amount s sd        coefficient of species s in the side (multiset) sd                      (proof/C17_Proof.v)
      side_vec net iso sd  the side as a vector over the sorted species list; side_of ro e the reactant / product side of e
                                                                                                   (proof/C19_Complexes.v)
      dpath arcs u w     directed path u -> ... -> w along the arcs of the complex graph         (proof/C19_Linkage.v)
      upath arcs u w     undirected path (each step follows an arc forwards or backwards)        (proof/C19_Linkage.v)
      nn                 N.of_nat (complex indices are stored as N in the classes)               (model/C19_Model.v)
      is_error, to_old (API object -> state of the staged machine), script_of, side_total        (proof/C19_ApiProof.v)
      counts_for                                                                                   (proof/C19_NodesProof.v) *)
From Coq Require Import List NArith ZArith.
Require mathcomp.algebra.mxalgebra mathcomp.algebra.matrix mathcomp.algebra.rat.
Require SK.lib.RankBridge SK.proof.C19_Rank SK.proof.C19_ClassRank SK.proof.C19_Nullity SK.proof.C19_SumExact.
From SK Require Import lib.Reach model.C17_Model model.C19_Model model.C19_Api model.C19_Text model.C19_Fast model.C17_NodeModel model.C19_Nodes proof.C19_FastProof proof.C19_TextProof proof.C19_ApiProof proof.C19_NodesProof proof.C17_Proof proof.C19_Proof proof.C19_Complexes proof.C19_Linkage proof.C19_Regular proof.C19_DefOne.
Import ListNotations.

(** (1) complexes = the distinct reactant and product multisets: the list has no duplicate, a vector is in it iff it is
        the reactant or the product side of some reaction, and two sides give the same vector iff they are the same
        multiset (same coefficient for every species). *)
Theorem C19_complexes : forall (net : list rxn) (iso : list str), NoDup (map rid net) ->
  let cs := fst (complex_graph net iso) in
  NoDup cs /\
  (forall v, In v cs <-> exists e, In e net /\ (v = side_vec net iso (rlhs e) \/ v = side_vec net iso (rrhs e))) /\
  (forall ro1 e1 ro2 e2, In e1 net -> In e2 net ->
     (side_vec net iso (side_of ro1 e1) = side_vec net iso (side_of ro2 e2) <->
      forall s, amount s (side_of ro1 e1) = amount s (side_of ro2 e2))).
Proof. exact complexes_spec. Qed.
Print Assumptions C19_complexes.

(** (1b) the complex graph: an arc u -> v (no duplicates) iff some reaction has reactant complex number u and product
         complex number v. *)
Theorem C19_complex_graph : forall (net : list rxn) (iso : list str), NoDup (map rid net) ->
  let cs := fst (complex_graph net iso) in
  let arcs := snd (complex_graph net iso) in
  NoDup arcs /\
  forall u v, In (u, v) arcs <->
    exists e, In e net /\ nth_error cs u = Some (side_vec net iso (rlhs e)) /\ nth_error cs v = Some (side_vec net iso (rrhs e)).
Proof. exact complex_arcs_spec. Qed.
Print Assumptions C19_complex_graph.

(** (2) linkage classes = connected components of the undirected complex graph: the classes partition the complex
        indices 0..k-1 (their concatenation has no duplicate and covers exactly the indices; no class is empty), two
        complexes lie in the same class iff an undirected path joins them; n_linkage is the number of classes.
        (The saturation fuel k+1 of the model always suffices: a closure that ran out of fuel would be empty.) *)
Theorem C19_linkage : forall (net : list rxn) (iso : list str),
  let cs := fst (complex_graph net iso) in
  let arcs := snd (complex_graph net iso) in
  let k := length cs in
  let L := linkage_classes arcs k in
  (forall r, n_linkage (compute_summary net iso r) = length L) /\
  NoDup (concat L) /\
  (forall y, In y (concat L) <-> exists i, i < k /\ y = nn i) /\
  (forall c, In c L -> NoDup c /\ c <> []) /\
  (forall i j, i < k -> j < k -> ((exists c, In c L /\ In (nn i) c /\ In (nn j) c) <-> upath arcs i j)).
Proof. exact net_linkage. Qed.
Print Assumptions C19_linkage.

(** (2b) fuel sufficiency: the saturation closures of the model (undirected, forward, backward; fuel = number of complexes + 1)
         never run out of fuel. *)
Theorem C19_fuel : forall (net : list rxn) (iso : list str) (u : nat),
  let arcs := snd (complex_graph net iso) in
  let k := length (fst (complex_graph net iso)) in
  u < k ->
  saturate (und_nbr arcs) (S k) [nn u] <> None /\
  saturate (succs arcs) (S k) [nn u] <> None /\
  saturate (preds arcs) (S k) [nn u] <> None.
Proof. exact net_fuel. Qed.
Print Assumptions C19_fuel.

(** (3) weak reversibility: the verdict is true iff every linkage class is strongly connected, iff every reaction arc
        y -> y' has a directed return path y' -> ... -> y. *)
Theorem C19_weak_rev : forall (net : list rxn) (iso : list str) (r : nat),
  let arcs := snd (complex_graph net iso) in
  let k := length (fst (complex_graph net iso)) in
  (weakly_rev (compute_summary net iso r) = true <->
   forall c, In c (linkage_classes arcs k) -> forall i j, In (nn i) c -> In (nn j) c -> dpath arcs i j) /\
  (weakly_rev (compute_summary net iso r) = true <-> forall u v, In (u, v) arcs -> dpath arcs v u).
Proof. exact net_weak_rev. Qed.
Print Assumptions C19_weak_rev.

(** (3b) the same in terms of the reactions: weakly reversible iff for every reaction y -> y' (y, y' the numbers of its reactant
         and product complexes) the complex graph has a directed path y' -> ... -> y. *)
Theorem C19_weak_rev_reactions : forall (net : list rxn) (iso : list str) (r : nat), NoDup (map rid net) ->
  let cs := fst (complex_graph net iso) in
  let arcs := snd (complex_graph net iso) in
  (weakly_rev (compute_summary net iso r) = true <->
   forall e u v, In e net ->
     nth_error cs u = Some (side_vec net iso (rlhs e)) -> nth_error cs v = Some (side_vec net iso (rrhs e)) ->
     dpath arcs v u).
Proof. exact net_weak_rev_reactions. Qed.
Print Assumptions C19_weak_rev_reactions.

(** (4a) the reported deficiency is n - l - r for the rank r handed to the summary. *)
Theorem C19_deficiency_formula : forall net iso r,
  let s := compute_summary net iso r in
  deficiency s = (Z.of_nat (n_complexes s) - Z.of_nat (n_linkage s) - Z.of_nat (stoich_rank s))%Z.
Proof. exact deficiency_formula. Qed.
Print Assumptions C19_deficiency_formula.

(** (4) deficiency = (number of complexes) - (number of linkage classes) - (EXACT rank of the stoichiometric matrix):
        whenever the rank certificate is accepted by the proved checker, the rank used by the summary is MathComp's rank
        over the rationals of build_S (the matrix of C17), and the deficiency is n - l - that rank.  (numpy's float rank
        enters only through the per-run correspondence: it is compared with the certified rank.) *)
Theorem C19_deficiency : forall (net : list rxn) (iso : list str) (rc : rcert),
  let m := length (species_order net iso) in
  let n := length (reaction_order net) in
  let S := build_S net iso in
  let F := mathcomp.algebra.rat.rat_fieldType in
  let rankS := @mathcomp.algebra.mxalgebra.mxrank F m n (SK.lib.RankBridge.toM m n S) in
  rank_checked m n S rc = true ->
  let s := compute_summary net iso (rc_r rc) in
  stoich_rank s = rankS /\
  deficiency s = (Z.of_nat (n_complexes s) - Z.of_nat (n_linkage s) - Z.of_nat rankS)%Z.
Proof. exact SK.proof.C19_Rank.deficiency_exact. Qed.
Print Assumptions C19_deficiency.

(** (5a) for EVERY network: exact rank of S + number of linkage classes <= number of complexes
         (S = Y * I_a; the class indicator vectors are independent and annihilate the incidence matrix I_a). *)
Theorem C19_rank_bound : forall (net : list rxn) (iso : list str),
  let m := length (species_order net iso) in
  let n := length (reaction_order net) in
  let F := mathcomp.algebra.rat.rat_fieldType in
  let rankS := @mathcomp.algebra.mxalgebra.mxrank F m n (SK.lib.RankBridge.toM m n (build_S net iso)) in
  forall r, let s := compute_summary net iso r in
  rankS + n_linkage s <= n_complexes s.
Proof. intros net iso m n F rankS r. exact (SK.proof.C19_Rank.rank_bound_le net iso r). Qed.
Print Assumptions C19_rank_bound.

(** (5b) the deficiency is never negative (with the exact, certificate-checked rank). *)
Theorem C19_nonneg : forall (net : list rxn) (iso : list str) (rc : rcert),
  rank_checked (length (species_order net iso)) (length (reaction_order net)) (build_S net iso) rc = true ->
  (0 <= deficiency (compute_summary net iso (rc_r rc)))%Z.
Proof. exact SK.proof.C19_Rank.deficiency_nonneg. Qed.
Print Assumptions C19_nonneg.

(** (6) the linkage-class deficiencies n_c - 1 - s_c never sum to more than the network deficiency, with all ranks exact
         (every certificate — S and one per class — accepted by the proved checker; certs_ok is part of the observable
         compared on every run).  Core lemma (proof/C19_Rank.v rank_le_class_ranks, for every network): the exact rank of S is
         at most the sum over the classes of the exact ranks of their difference vectors. *)
Theorem C19_linkage_sum : forall (net : list rxn) (iso : list str) (rc : rcert) (ccs : list rcert),
  certs_ok net iso rc ccs = true ->
  let L := linkage_classes (snd (complex_graph net iso)) (length (fst (complex_graph net iso))) in
  (zsum (linkage_deficiencies L (map rc_r ccs)) <= deficiency (compute_summary net iso (rc_r rc)))%Z.
Proof. exact SK.proof.C19_Rank.linkage_sum. Qed.
Print Assumptions C19_linkage_sum.

(** (6b) each linkage-class deficiency is n_c - 1 - (EXACT rank of the class's non-zero difference vectors y' - y). *)
Theorem C19_class_deficiency : forall (net : list rxn) (iso : list str) (rc : rcert) (ccs : list rcert) (c : nat),
  certs_ok net iso rc ccs = true ->
  let cs := fst (complex_graph net iso) in
  let arcs := snd (complex_graph net iso) in
  let L := linkage_classes arcs (length cs) in
  let m := length (species_order net iso) in
  let D := class_diffs cs arcs (nth c L []) in
  let F := mathcomp.algebra.rat.rat_fieldType in
  c < length L ->
  nth c (linkage_deficiencies L (map rc_r ccs)) 0%Z
  = (Z.of_nat (length (nth c L [])) - 1
     - Z.of_nat (@mathcomp.algebra.mxalgebra.mxrank F (length D) m (SK.lib.RankBridge.toM (length D) m D)))%Z.
Proof. exact SK.proof.C19_Rank.class_deficiency_exact. Qed.
Print Assumptions C19_class_deficiency.

(** (6c) for EVERY network and every linkage class: exact rank of the class's difference vectors + 1 <= size of the class
         (the class is connected: same argument as (5a) with the vertices outside the class as singleton classes). *)
Theorem C19_class_rank_bound : forall (net : list rxn) (iso : list str) (c : nat),
  let cs := fst (complex_graph net iso) in
  let arcs := snd (complex_graph net iso) in
  let L := linkage_classes arcs (length cs) in
  let m := length (species_order net iso) in
  let D := class_diffs cs arcs (nth c L []) in
  let F := mathcomp.algebra.rat.rat_fieldType in
  c < length L ->
  @mathcomp.algebra.mxalgebra.mxrank F (length D) m (SK.lib.RankBridge.toM (length D) m D) + 1 <= length (nth c L []).
Proof. exact SK.proof.C19_ClassRank.class_rank_bound_le. Qed.
Print Assumptions C19_class_rank_bound.

(** (6d) by (6c) every linkage-class deficiency is >= 0 (all ranks exact). *)
Theorem C19_class_nonneg : forall (net : list rxn) (iso : list str) (rc : rcert) (ccs : list rcert) (c : nat),
  certs_ok net iso rc ccs = true ->
  let L := linkage_classes (snd (complex_graph net iso)) (length (fst (complex_graph net iso))) in
  c < length L ->
  (0 <= nth c (linkage_deficiencies L (map rc_r ccs)) 0%Z)%Z.
Proof. exact SK.proof.C19_ClassRank.class_deficiency_nonneg. Qed.
Print Assumptions C19_class_nonneg.

(** (9) check_regularity: true iff every linkage class has exactly one terminal strongly connected component, i.e. it
        contains a terminal complex (everything reachable from it leads back to it) and any two terminal complexes of the
        class reach each other. *)
Theorem C19_regular : forall (net : list rxn) (iso : list str),
  let arcs := snd (complex_graph net iso) in
  let k := length (fst (complex_graph net iso)) in
  regular arcs k = true <->
  forall c, In c (linkage_classes arcs k) ->
    (exists v, In (nn v) c /\ (forall w, dpath arcs v w -> dpath arcs w v)) /\
    (forall v w, In (nn v) c -> In (nn w) c ->
       (forall x, dpath arcs v x -> dpath arcs x v) -> (forall x, dpath arcs w x -> dpath arcs x w) -> dpath arcs v w).
Proof. exact net_regular. Qed.
Print Assumptions C19_regular.

(** (10) the deficiency-zero front end: true iff deficiency 0 and every reaction arc has a return path. *)
Theorem C19_deficiency_zero : forall (net : list rxn) (iso : list str) (r : nat),
  let arcs := snd (complex_graph net iso) in
  let s := compute_summary net iso r in
  check_deficiency_zero s = true <-> deficiency s = 0%Z /\ forall u v, In (u, v) arcs -> dpath arcs v u.
Proof. exact net_deficiency_zero. Qed.
Print Assumptions C19_deficiency_zero.

(** (11) the deficiency-one front ends (check_deficiency_one, hypotheses_satisfied of run_deficiency_one_algorithm). *)
Theorem C19_deficiency_one : forall (s : summary) (ld : list Z) (reg : bool),
  (check_deficiency_one s ld = true <->
   deficiency s = 1%Z /\ length ld = n_linkage s /\ Forall (fun d => (d <= 1)%Z) ld /\ zsum ld = 1%Z) /\
  (deficiency_one_hypotheses s ld reg = true <->
   deficiency s = 1%Z /\ zsum ld = 1%Z /\ ld <> [] /\ Forall (fun d => (d <= 1)%Z) ld /\ reg = true).
Proof. intros s ld reg. split; [apply deficiency_one_spec | apply deficiency_one_hypotheses_spec]. Qed.
Print Assumptions C19_deficiency_one.

(** (12) when the deficiency-one front end answers true (all ranks exact): exactly one linkage class has deficiency 1 and every
         other class has deficiency 0. *)
Theorem C19_deficiency_one_unique_class : forall (net : list rxn) (iso : list str) (rc : rcert) (ccs : list rcert),
  certs_ok net iso rc ccs = true ->
  let L := linkage_classes (snd (complex_graph net iso)) (length (fst (complex_graph net iso))) in
  let ld := linkage_deficiencies L (map rc_r ccs) in
  check_deficiency_one (compute_summary net iso (rc_r rc)) ld = true ->
  exists c, c < length L /\ nth c ld 0%Z = 1%Z /\ forall c', c' < length L -> c' <> c -> nth c' ld 0%Z = 0%Z.
Proof. exact deficiency_one_unique_class. Qed.
Print Assumptions C19_deficiency_one_unique_class.

(** (13) the counts in the summary: species of the network (occurring or kept), reactions, complexes. *)
Theorem C19_counts : forall (net : list rxn) (iso : list str) (r : nat),
  let s := compute_summary net iso r in
  n_species s = length (species_set net iso) /\ n_reactions s = length net /\
  n_complexes s = length (fst (complex_graph net iso)).
Proof. exact summary_counts. Qed.
Print Assumptions C19_counts.

(** (7) documentation of a defect (repaired in /repo 0eb35ff): the walk over G.edges(r) only (out-arcs of the reaction node
        = product arcs) gives A + B -> C, C -> A + B three complexes, one of them the zero vector that is no side of any
        reaction; the repaired walk gives the two complexes. *)
Theorem C19_outarcs_only_refuted :
  exists net, NoDup (map rid net) /\
    fst (complex_graph net []) = [[1;1;0]; [0;0;1]]%Z /\
    fst (complex_graph_outarcs_only net []) = [[0;0;0]; [0;0;1]; [1;1;0]]%Z /\
    ~ (forall v, In v (fst (complex_graph_outarcs_only net [])) ->
         exists e, In e net /\ (v = side_vec net [] (rlhs e) \/ v = side_vec net [] (rrhs e))).
Proof. exact outarcs_only_refuted. Qed.
Print Assumptions C19_outarcs_only_refuted.

(** (8) call histories on ONE analyzer object (network edited between the analyses): the model's state machine keeps no
        information from one analysis to the next — the k-th answer is the answer of a fresh analysis of the k-th network.
        (The correspondence runs real histories on one DeficiencyAnalyzer; the oracle compares every answer with a fresh one.) *)
Theorem C19_history_stateless : forall steps : list hist_step,
  run19_hist steps = SK.lib.Tok.L (map (fun x => run19 (fst (fst (fst x))) (snd (fst (fst x))) (snd (fst x)) (snd x)) steps).
Proof. exact run19_hist_stateless. Qed.
Print Assumptions C19_history_stateless.

(** (14) documentation of a defect (repaired in /repo a58b70a): an UNDIRECTED bipartite input was converted with
         nx.DiGraph(U) (both directions per incidence), so every coefficient was counted twice: in general the vectors are
         doubled, and A + B -> C, C -> A + B got the complexes (2,2,0), (0,0,2), which are no sides of any reaction. *)
Theorem C19_undirected_input_refuted :
  (forall ro net iso e, cvec_undirected_doubled ro net iso e = map (fun z => (2 * z)%Z) (cvec ro net iso e)) /\
  exists net, NoDup (map rid net) /\
    fst (complex_graph net []) = [[1;1;0]; [0;0;1]]%Z /\
    fst (complex_graph_undirected_doubled net []) = [[2;2;0]; [0;0;2]]%Z /\
    ~ (forall v, In v (fst (complex_graph_undirected_doubled net [])) ->
         exists e, In e net /\ (v = side_vec net [] (rlhs e) \/ v = side_vec net [] (rrhs e))).
Proof. split; [exact cvec_undirected_doubled_eq | exact undirected_input_refuted]. Qed.
Print Assumptions C19_undirected_input_refuted.

(** (15) the staged state machine of the analyzer (compute_summary / compute_linkage_deficiencies /
         run_deficiency_one_algorithm; routes 0 = compute_crn_deficiency, 1 = the three stages by hand, 2 = summary + front end):
         from ANY previous state every route leaves exactly the fresh analysis of the current network in the object, what the
         adapter reads from it is run19, and a whole history (re-used analyzer and brand-new analyzer per step) is the list of
         fresh analyses.  This is the function the correspondence evaluates for call histories. *)
Theorem C19_state_machine :
  (forall style x st, route style x st = route 0 x a_init) /\
  (forall x, hs_net x <> [] -> obs_of_state x (route 0 x a_init) = run19 (hs_net x) (hs_iso x) (hs_rc x) (hs_ccs x)) /\
  (forall steps, run19_sm steps =
     SK.lib.Tok.L (flat_map (fun sx => [run19 (hs_net (snd sx)) (hs_iso (snd sx)) (hs_rc (snd sx)) (hs_ccs (snd sx));
                                        run19 (hs_net (snd sx)) (hs_iso (snd sx)) (hs_rc (snd sx)) (hs_ccs (snd sx))]) steps)).
Proof. split; [exact route_fresh | split; [exact obs_fresh_run19 | exact run19_sm_stateless]]. Qed.
Print Assumptions C19_state_machine.

(** (16) documentation of a defect (repaired in /repo 7d0fc98): with the summary stage that KEPT the derived fields,
         A -> 2A -> 3A analysed, 2A -> 3A removed, then route 2 on the same analyzer: deficiency 0 next to the class
         deficiencies [1] of the previous network (the repaired machine and a fresh analysis give [0]). *)
Theorem C19_stale_summary_route_refuted :
  a_ld lad_stale = Some [1%Z] /\ st_deficiency lad_stale = Some 0%Z /\
  a_ld (route 2 lad_x2 (route 0 lad_x1 a_init)) = Some [0%Z] /\ a_ld (route 0 lad_x2 a_init) = Some [0%Z].
Proof. exact stale_summary_route_refuted. Qed.
Print Assumptions C19_stale_summary_route_refuted.

(* ====================================================================================================================
   The PUBLIC API as a state machine over ARBITRARY call sequences (model/C19_Api.v; evaluated by the
   correspondence for the api-seq population: after every call the result / error code and every stored field).
   [call] = (method, the network as it is at the time of the call, float argmax positions for the nondegeneracy test);
   [run_calls o cs ast_init] = the object after the calls cs on a new analyzer built with the options o.
   ==================================================================================================================== *)

(** (17) after ANY sequence of public calls, with ANY edits of the network between them, everything the object stores
         describes ONE network — the one it saw at its last successful compute_summary (x below): complexes, complex graph and
         summary are those of x; the class deficiencies (if stored) are x's; the deficiency-one result (if stored) was
         computed from exactly the stored deficiency, the stored class deficiencies and the stored complex graph; the
         nondegeneracy result (if stored) used x's complexes.  Without a summary nothing is stored. *)
Theorem C19_api_coherent : forall (o : opts) (cs : list call),
  let st := run_calls o cs ast_init in
  match s_sum st with
  | None => s_ld st = None /\ s_one st = None /\ s_nd st = None
  | Some sn =>
      let x := sn_x sn in
      let cg := complex_graph (hs_net x) (hs_iso x) in
      hs_net x <> [] /\
      sn_cs sn = fst cg /\ sn_arcs sn = snd cg /\ sn_sum sn = compute_summary (hs_net x) (hs_iso x) (the_rank o x) /\
      (forall ld, s_ld st = Some ld ->
         ld = linkage_deficiencies (linkage_classes (snd cg) (length (fst cg))) (map rc_r (hs_ccs x))) /\
      (forall d, s_one st = Some d ->
         s_ld st = Some (one_ld d) /\ one_delta d = deficiency (sn_sum sn) /\
         one_reg d = regular (snd cg) (length (fst cg)) /\
         one_hyp d = deficiency_one_hypotheses (sn_sum sn) (one_ld d) (one_reg d)) /\
      (forall d, s_nd st = Some d -> nd_max d = max_complex_size (fst cg))
  end.
Proof. exact api_one_network. Qed.
Print Assumptions C19_api_coherent.

(** (18) the last clause of the property at the level of the API: whatever was called before, with whatever edits in between,
         the class deficiencies the object reports never sum to more than the deficiency it reports next to them
         (rank_fn given; ranks justified by accepted certificates of the network of the last compute_summary). *)
Theorem C19_api_linkage_sum : forall (o : opts) (cs : list call) (sn : snapshot) (ld : list Z),
  let st := run_calls o cs ast_init in
  o_rank o = true -> s_sum st = Some sn -> s_ld st = Some ld ->
  certs_ok (hs_net (sn_x sn)) (hs_iso (sn_x sn)) (hs_rc (sn_x sn)) (hs_ccs (sn_x sn)) = true ->
  (zsum ld <= deficiency (sn_sum sn))%Z.
Proof. exact api_linkage_sum. Qed.
Print Assumptions C19_api_linkage_sum.

(** (19) compute_crn_deficiency from ANY previous state: no reaction -> ValueError and the object is untouched; otherwise result
         and new state are those of a brand-new analyzer, and (default options) that state is the one of the staged machine
         of theorem (15) whose observable is run19. *)
Theorem C19_api_full_route : forall (o : opts) (x : hist_step) (f : bool) (mis : list nat) (st : ast),
  (hs_net x = [] -> op_crn o x f mis st = (st, RValueError)) /\
  (hs_net x <> [] -> op_crn o x f mis st = op_crn o x f mis ast_init) /\
  (hs_net x <> [] -> to_old (fst (op_crn default_opts x false [] st)) = route 0 x a_init).
Proof. exact api_full_route. Qed.
Print Assumptions C19_api_full_route.

(** (20) exceptions: a call that raises leaves the object untouched, except compute_crn_deficiency(run_nondegeneracy=True)
         failing in its last stage (the object then holds the state of compute_crn_deficiency()); and which call raises what:
         ValueError <-> the network has no reaction; RuntimeError k <-> the stage the method reads is missing
         (k numbers the message, harness/props/C19.py:_RT). *)
Theorem C19_api_errors : forall (o : opts) (c : call) (st : ast),
  (is_error (snd (apply_op o c st)) = true ->
     fst (apply_op o c st) = st \/
     (c_op c = OCrn true /\ fst (apply_op o c st) = fst (op_crn o (c_x c) false [] st))) /\
  (snd (op_summary o (c_x c) st) = RValueError <-> hs_net (c_x c) = []) /\
  (snd (op_linkage st) = RRuntime 2 <-> s_sum st = None) /\
  (op_check0 st = RRuntime 3 <-> s_sum st = None) /\
  (op_check1 st = RRuntime 4 <-> s_sum st = None) /\
  (op_check1 st = RRuntime 5 <-> s_sum st <> None /\ s_ld st = None) /\
  (op_reg st = RRuntime 6 <-> s_sum st = None) /\
  (snd (op_nondeg o (c_x c) (c_mis c) st) = RRuntime 7 <-> o_stoich o = false) /\
  (snd (op_nondeg o (c_x c) (c_mis c) st) = RRuntime 8 <-> o_stoich o = true /\ s_sum st = None) /\
  (snd (op_one o (c_x c) st) = RValueError <-> s_sum st = None /\ hs_net (c_x c) = []).
Proof. intros o c st. split; [apply api_errors | apply api_preconditions]. Qed.
Print Assumptions C19_api_errors.

(** (21) nondegeneracy_test, exact part: with an accepted rank certificate of S the reported nullity is the dimension of the left
         kernel {y | y S = 0} = ker(S^T) over the rationals (MathComp kermx), and nullity + rank = number of species. *)
Theorem C19_nondeg_nullity : forall (net : list rxn) (iso : list str) (rc : rcert) (cs : list (list Z)) (mis : list nat) (d : nd),
  let m := length (species_order net iso) in
  let n := length (reaction_order net) in
  let S := build_S net iso in
  let F := mathcomp.algebra.rat.rat_fieldType in
  rank_checked m n S rc = true ->
  nondeg m (rc_r rc) cs mis = Some d ->
  nd_nullity d = @mathcomp.algebra.mxalgebra.mxrank F _ _ (@mathcomp.algebra.mxalgebra.kermx F m n (SK.lib.RankBridge.toM m n S)) /\
  nd_nullity d + rc_r rc = m.
Proof. exact SK.proof.C19_Nullity.nondeg_nullity_exact. Qed.
Print Assumptions C19_nondeg_nullity.

(** (22) nondegeneracy_test, logic part: max_complex_size is the largest total coefficient of a stored complex (0 without
         complexes); the per-basis flag says whether some complex of that size contains the species at the vector's largest
         entry; IndexError can only come from a complex of maximal size that is shorter than that position; the stored result
         carries exactly these values. *)
Theorem C19_nondeg_logic : forall cs : list (list Z),
  (cs = [] -> max_complex_size cs = 0%Z) /\
  (cs <> [] -> (exists c, In c cs /\ complex_size c = max_complex_size cs) /\
               forall c, In c cs -> (complex_size c <= max_complex_size cs)%Z) /\
  (forall mx i,
     (nd_scan cs mx i = None -> exists c, In c cs /\ complex_size c = mx /\ length c <= i) /\
     (forall b, nd_scan cs mx i = Some b ->
        (b = true <-> exists c, In c cs /\ complex_size c = mx /\ (0 < nth i c 0)%Z)) /\
     ((forall c, In c cs -> i < length c) -> nd_scan cs mx i <> None)) /\
  (forall m r mis d, nondeg m r cs mis = Some d ->
     nd_max d = max_complex_size cs /\ nd_nullity d = m - r /\ map fst (nd_per d) = firstn (length (nd_per d)) mis).
Proof.
  intros cs. destruct (max_complex_size_spec cs) as [A B]. split; [exact A|]. split; [exact B|].
  split; [intros mx i; apply nd_scan_spec | intros m r mis d; apply nondeg_max].
Qed.
Print Assumptions C19_nondeg_logic.

(** (23) nondegeneracy_test right after compute_summary of the SAME network never raises IndexError; after an edit that adds
         species, without a new compute_summary, it does (S is rebuilt from the current network, the complexes are the stored
         ones): A -> B analysed, B -> 2C + D added.  Outside the property text (a diagnostic); modelled as the code behaves. *)
Theorem C19_nondeg_stale_complexes_witness :
  (forall o x mis st, s_sum st = Some (snap_of o x) ->
     (forall i, In i mis -> i < length (species_order (hs_net x) (hs_iso x))) ->
     snd (op_nondeg o x mis st) <> RIndexError) /\
  (exists x1 x2 mis1 mis2,
     snd (apply_op default_opts (ONondeg, x2, mis2) (run_calls default_opts [(OCrn true, x1, mis1)] ast_init)) = RIndexError).
Proof.
  split; [exact api_nondeg_no_index_error|]. exists nd_x1, nd_x2, [1], [0; 3]. exact (proj1 ex_nondeg_after_edit).
Qed.
Print Assumptions C19_nondeg_stale_complexes_witness.

(** (24) the attribute / identifier level of _complex_vectors (model/C19_Nodes.v: classification of the nodes by kind / bipartite
         flag, species dict by node identifier in label order, per reaction node the accumulation over its in- and out-arcs
         with optional role / stoich attributes) refines the label-level model: on the export of ANY reaction list under ANY
         injective identifier assignment (species and reaction identifiers disjoint, as in every graph) it computes exactly
         the complex list and the complex graph of (1)/(1b) (duplicate edge ids allowed: no NoDup premise).  Evaluated by the correspondence on raw attributed graphs. *)
Theorem C19_nodes_refine : forall (ids idr : str -> N) (net : list rxn) (iso : list str),
  (forall s s', In s (species_set net iso) -> In s' (species_set net iso) -> ids s = ids s' -> s = s') ->
  (forall e e', In e net -> In e' net -> idr (rid e) = idr (rid e') -> rid e = rid e') ->
  (forall s e, In s (species_set net iso) -> In e net -> ids s <> idr (rid e)) ->
  net <> [] -> species_set net iso <> [] ->
  complex_graph_nodes (raw_export ids idr net iso) = Some (complex_graph net iso).
Proof. exact nodes_refine. Qed.
Print Assumptions C19_nodes_refine.

(** (25) evaluation: for plain cases the correspondence evaluates run19f (model/C19_Fast.v: let-bound sub-terms, frontier
         closure lib/C19_FastClosure.sat_f, fold-based certificate checker lib/C19_FastRank.check_rank_f).  For every certificate
         flag the fast observable IS the observable of model/C19_Model.v; the fast certificate flag implies certs_ok; hence
         whenever the evaluated observable shows the flag 1 it is run19 of the same inputs with accepted certificates (the
         premise of (6), (6b), (6d), (12), (18)). *)
Theorem C19_fast_eval : forall (net : list rxn) (iso : list str) (rc : rcert) (ccs : list rcert),
  (forall flag, run19_flag_f flag net iso rc ccs = run19_flag flag net iso rc ccs) /\
  (certs_ok_f net iso rc ccs = true -> certs_ok net iso rc ccs = true) /\
  (certs_ok_f net iso rc ccs = true -> run19f net iso rc ccs = run19 net iso rc ccs /\ certs_ok net iso rc ccs = true).
Proof.
  intros net iso rc ccs. split; [intros flag; apply run19_flag_f_eq|]. split; [apply certs_ok_f_sound|apply run19f_spec].
Qed.
Print Assumptions C19_fast_eval.

(** (26) the network the object describes after any call sequence is one of the networks handed to a call (the one of the last
         successful compute_summary, by (17)); in particular, if the network is never edited — every call carries the same x —
         the stored summary group is exactly the fresh analysis of x, and by (17) so are all derived fields. *)
Theorem C19_api_origin : forall (o : opts) (cs : list call) (sn : snapshot),
  (s_sum (run_calls o cs ast_init) = Some sn -> exists c, In c cs /\ sn = snap_of o (c_x c)) /\
  (forall x, (forall c, In c cs -> c_x c = x) -> s_sum (run_calls o cs ast_init) = Some sn -> sn = snap_of o x).
Proof. intros o cs sn. split; [apply api_origin | intros x; apply api_no_edit_fresh]. Qed.
Print Assumptions C19_api_origin.

(** (27) undirected input (nx.Graph / nx.MultiGraph; the conversion repaired in /repo a58b70a, modelled in model/C19_Nodes.v:
         orient / merge_arc): a graph with the nodes and incidences of the export, every incidence listed once in EITHER
         orientation ([reor]: same role, same coefficient, same two ends), is turned into exactly the directed export — no
         incidence is doubled, merged or dropped when the sides are dicts (no two incidences with the same species, reaction
         and role) — and therefore gives the complex list and complex graph of (1)/(1b). *)
Theorem C19_undirected_refine : forall (ids idr : str -> N) (net : list rxn) (iso : list str),
  (forall s s', In s (species_set net iso) -> In s' (species_set net iso) -> ids s = ids s' -> s = s') ->
  (forall e e', In e net -> In e' net -> idr (rid e) = idr (rid e') -> rid e = rid e') ->
  (forall s e, In s (species_set net iso) -> In e net -> ids s <> idr (rid e)) ->
  NoDup (map (fun a => (a_species a, a_rxn a, a_role a)) (bip_arcs net)) ->
  forall E : list rarc,
  Forall2 (fun e x => ra_role e = ra_role x /\ ra_stoich e = ra_stoich x /\
                      ((ra_u e = ra_u x /\ ra_v e = ra_v x) \/ (ra_u e = ra_v x /\ ra_v e = ra_u x)))
          E (rg_arcs (raw_export ids idr net iso)) ->
  net <> [] -> species_set net iso <> [] ->
  as_bipartite_undirected (RG (rg_nodes (raw_export ids idr net iso)) E) = raw_export ids idr net iso /\
  complex_graph_nodes (as_bipartite_undirected (RG (rg_nodes (raw_export ids idr net iso)) E)) = Some (complex_graph net iso).
Proof. exact undirected_refine. Qed.
Print Assumptions C19_undirected_refine.

(** (28) the premise of (27) from the shape of the input: unique edge ids and sides without a repeated species (dicts) give
         pairwise distinct (species, reaction, role) incidences. *)
Theorem C19_dict_sides_distinct : forall net : list rxn, NoDup (map rid net) ->
  (forall e, In e net -> NoDup (map fst (rlhs e)) /\ NoDup (map fst (rrhs e))) ->
  NoDup (map (fun a => (a_species a, a_rxn a, a_role a)) (bip_arcs net)).
Proof. exact keys_nodup_of_dicts. Qed.
Print Assumptions C19_dict_sides_distinct.

(** (29) in _complex_vectors the DIRECTION of an arc plays no part (the role says on which side a species stands): for ANY
         attributed graph, reversing any set of arcs — role and coefficient kept — changes neither a reactant / product vector
         of any reaction node nor the complex graph. *)
Theorem C19_direction_irrelevant : forall (ns : list rnode) (A A' : list rarc),
  Forall2 (fun x y => y = x \/ y = RArc (ra_v x) (ra_u x) (ra_role x) (ra_stoich x)) A A' ->
  (forall ro r, node_vec (RG ns A') ro r = node_vec (RG ns A) ro r) /\
  complex_graph_nodes (RG ns A') = complex_graph_nodes (RG ns A).
Proof. exact direction_irrelevant. Qed.
Print Assumptions C19_direction_irrelevant.

(** (30) the reading rules for node / arc attributes (utils._split_species_reactions, _complex_vectors), for ANY attributed graph:
         kind "species" (Some 0) or bipartite flag 0 makes a species even when the other attribute says reaction; a reaction
         needs kind "reaction" (Some 1) or flag 1 and must not be a species; nothing else is either.  An arc without a stoich
         attribute counts with coefficient 1; an arc without a known role, or whose other end is not a species node
         ([counts_for] false), contributes nothing to the vectors of a reaction node. *)
Theorem C19_attribute_rules :
  (forall n : rnode,
     (is_species n = true <-> rn_kind n = Some 0 \/ rn_bflag n = Some 0%Z) /\
     (is_reaction n = true <-> is_species n = false /\ (rn_kind n = Some 1 \/ rn_bflag n = Some 1%Z)) /\
     (is_species n = true -> is_reaction n = false)) /\
  (forall (ns : list rnode) (A : list rarc) (r : N),
     node_vecs (RG ns (map (fun a => RArc (ra_u a) (ra_v a) (ra_role a) (Some (match ra_stoich a with Some c => c | None => 1%Z end))) A)) r
       = node_vecs (RG ns A) r /\
     node_vecs (RG ns (filter (counts_for (RG ns A) r) A)) r = node_vecs (RG ns A) r).
Proof. split; [exact classification_spec | exact attribute_defaults]. Qed.
Print Assumptions C19_attribute_rules.

(** (31) max_complex_size in terms of the reactions (unique edge ids): it is the largest total coefficient (molecularity) of a
         reactant or product side — attained by some side, and no side exceeds it. *)
Theorem C19_max_complex_size : forall (net : list rxn) (iso : list str), NoDup (map rid net) -> net <> [] ->
  let mx := max_complex_size (fst (complex_graph net iso)) in
  (exists e ro, In e net /\ side_total (side_of ro e) = mx) /\
  (forall e ro, In e net -> (side_total (side_of ro e) <= mx)%Z).
Proof. exact max_complex_size_molecularity. Qed.
Print Assumptions C19_max_complex_size.

(** (32) the last summary wins: a call that (re)computes the summary on a network with reactions — compute_summary,
         compute_crn_deficiency, run_deficiency_one_algorithm on an object without a summary — stores exactly the network it was
         handed, whatever the object held before (so, with (17), everything reported afterwards describes the CURRENT network until
         the next edit). *)
Theorem C19_api_summary_current : forall (o : opts) (c : call) (st : ast), hs_net (c_x c) <> [] ->
  (c_op c = OSummary \/ (exists f, c_op c = OCrn f) \/ (c_op c = OOne /\ s_sum st = None)) ->
  s_sum (fst (apply_op o c st)) = Some (snap_of o (c_x c)).
Proof. exact api_summary_current. Qed.
Print Assumptions C19_api_summary_current.

(** (33) identifier level, the rest of the observable: the species labels in index order and the node counts of the export are
         the species order / species count / reaction count of the label-level model (any identifier assignment). *)
Theorem C19_nodes_labels : forall (ids idr : str -> N) (net : list rxn) (iso : list str),
  map eff_label (species_sorted (raw_export ids idr net iso)) = species_order net iso /\
  length (species_nodes (raw_export ids idr net iso)) = length (species_order net iso) /\
  length (reaction_nodes (raw_export ids idr net iso)) = length (reaction_order net).
Proof. exact nodes_labels. Qed.
Print Assumptions C19_nodes_labels.

(** (34) nor does the ORDER of the arcs: for ANY attributed graph, permuting the arc list changes no vector and not the complex
         graph — with (29): they depend only on the multiset of (species end, reaction end, role, coefficient) incidences. *)
Theorem C19_arc_order_irrelevant : forall (ns : list rnode) (A A' : list rarc), Permutation.Permutation A A' ->
  (forall ro r, node_vec (RG ns A') ro r = node_vec (RG ns A) ro r) /\
  complex_graph_nodes (RG ns A') = complex_graph_nodes (RG ns A).
Proof. exact arc_order_irrelevant. Qed.
Print Assumptions C19_arc_order_irrelevant.

(** (35) (27) at full strength: the undirected (multi)graph may list the incidences of the export in ANY order and in either
         orientation (networkx's edge order is an implementation detail): the converted graph has the export's arcs up to order and
         gives the complex list and complex graph of the label-level model. *)
Theorem C19_undirected_refine_any_order : forall (ids idr : str -> N) (net : list rxn) (iso : list str),
  (forall s s', In s (species_set net iso) -> In s' (species_set net iso) -> ids s = ids s' -> s = s') ->
  (forall e e', In e net -> In e' net -> idr (rid e) = idr (rid e') -> rid e = rid e') ->
  (forall s e, In s (species_set net iso) -> In e net -> ids s <> idr (rid e)) ->
  NoDup (map (fun a => (a_species a, a_rxn a, a_role a)) (bip_arcs net)) ->
  forall E E0 : list rarc, Permutation.Permutation E E0 ->
  Forall2 (fun e x => ra_role e = ra_role x /\ ra_stoich e = ra_stoich x /\
                      ((ra_u e = ra_u x /\ ra_v e = ra_v x) \/ (ra_u e = ra_v x /\ ra_v e = ra_u x)))
          E0 (rg_arcs (raw_export ids idr net iso)) ->
  net <> [] -> species_set net iso <> [] ->
  complex_graph_nodes (as_bipartite_undirected (RG (rg_nodes (raw_export ids idr net iso)) E)) = Some (complex_graph net iso).
Proof. exact undirected_refine_perm. Qed.
Print Assumptions C19_undirected_refine_any_order.

(* ====================================================================================================================
   Relations between the answers (they hold for every network, so no two reported values can contradict each other)
   ==================================================================================================================== *)

(** (36) weak reversibility implies the coarse regularity (every strongly connected class has exactly one terminal strongly
         connected component); hence check_deficiency_zero true implies regular.  (The converse fails: A -> B.) *)
Theorem C19_weak_rev_regular : forall (net : list rxn) (iso : list str) (r : nat),
  let arcs := snd (complex_graph net iso) in
  let k := length (fst (complex_graph net iso)) in
  (weakly_rev (compute_summary net iso r) = true -> regular arcs k = true) /\
  (check_deficiency_zero (compute_summary net iso r) = true -> regular arcs k = true).
Proof. exact net_weak_rev_regular. Qed.
Print Assumptions C19_weak_rev_regular.

(** (37) bounds of every summary (network with at least one reaction): 1 <= linkage classes <= complexes <= 2 * reactions, and
         the complex graph has at most one arc per reaction. *)
Theorem C19_summary_bounds : forall (net : list rxn) (iso : list str) (r : nat), net <> [] ->
  let s := compute_summary net iso r in
  1 <= n_linkage s /\ n_linkage s <= n_complexes s /\ n_complexes s <= 2 * n_reactions s /\
  length (snd (complex_graph net iso)) <= n_reactions s.
Proof. exact summary_bounds. Qed.
Print Assumptions C19_summary_bounds.

(** (38) the two deficiency-one front ends: when check_deficiency_one passes, hypotheses_satisfied is exactly the regularity flag. *)
Theorem C19_check_one_hypotheses : forall (s : summary) (ld : list Z) (reg : bool),
  check_deficiency_one s ld = true -> deficiency_one_hypotheses s ld reg = reg.
Proof. exact check_one_hypotheses. Qed.
Print Assumptions C19_check_one_hypotheses.

(** (39) multigraph inputs: parallel arcs add up — a multiset written with a coefficient, as one arc per molecule, or in any
         batches is the same multiset: for ANY attributed graph, splitting an arc of coefficient c1 + c2 into two parallel arcs
         c1, c2 (same ends, same role) changes no vector and not the complex graph.  (A conversion that keeps only one of several
         parallel arcs — seeded change C19-w4-1 — breaks exactly this.) *)
Theorem C19_parallel_arcs_add : forall (ns : list rnode) (pre post : list rarc) (u v : N) (role : option role) (c1 c2 : Z),
  let A := pre ++ RArc u v role (Some (c1 + c2)%Z) :: post in
  let A' := pre ++ RArc u v role (Some c1) :: RArc u v role (Some c2) :: post in
  (forall ro r, node_vec (RG ns A') ro r = node_vec (RG ns A) ro r) /\
  complex_graph_nodes (RG ns A') = complex_graph_nodes (RG ns A).
Proof. exact parallel_arcs_add. Qed.
Print Assumptions C19_parallel_arcs_add.

(** (40) frame: which stored groups a public call may write.  compute_linkage_deficiencies writes the class deficiencies only;
         nondegeneracy_test writes its own record only — in particular it leaves the stored complexes and complex graph alone (a
         nondegeneracy_test that reorders the stored complex list, seeded change C19-w4-2, breaks exactly this); the three
         checks write nothing; run_deficiency_one_algorithm on an object with a summary keeps the summary, the nondegeneracy
         record, and class deficiencies that were already stored. *)
Theorem C19_api_frame : forall (o : opts) (c : call) (st : ast),
  let st' := fst (apply_op o c st) in
  (c_op c = OLinkage -> s_sum st' = s_sum st /\ s_one st' = s_one st /\ s_nd st' = s_nd st) /\
  (c_op c = ONondeg -> s_sum st' = s_sum st /\ s_ld st' = s_ld st /\ s_one st' = s_one st) /\
  (c_op c = OCheck0 \/ c_op c = OCheck1 \/ c_op c = OReg -> st' = st) /\
  (c_op c = OOne -> s_sum st <> None ->
     s_nd st' = s_nd st /\ s_sum st' = s_sum st /\ (s_ld st <> None -> s_ld st' = s_ld st)).
Proof. exact api_frame. Qed.
Print Assumptions C19_api_frame.

(** (41) the two state machines are one: the three routes of the staged machine of (15) (evaluated for the history populations)
         are the call scripts [compute_crn_deficiency] / [compute_summary; compute_linkage_deficiencies;
         run_deficiency_one_algorithm] / [compute_summary; run_deficiency_one_algorithm] of the API machine, from any state. *)
Theorem C19_routes_are_scripts : forall (style : nat) (x : hist_step) (st : ast), hs_net x <> [] ->
  to_old (run_calls default_opts (script_of style x) st) = route style x (to_old st).
Proof. exact routes_are_scripts. Qed.
Print Assumptions C19_routes_are_scripts.

(** (42) the text views (model/C19_Text.v; explain() and __repr__ are part of the dump compared after every call of a script):
         f"{int}" is the decimal printer dec_Z — reading the digits back gives the integer, so equal texts mean equal numbers; the
         digits of dec_N are digits; two __repr__ texts are equal only for equal deficiencies. *)
Theorem C19_text :
  (forall z, val_Z (dec_Z z) = z) /\ (forall z1 z2, dec_Z z1 = dec_Z z2 -> z1 = z2) /\
  (forall n d, In d (dec_N n) -> (48 <= d < 58)%N) /\
  (forall s1 s2, repr_str (Some s1) = repr_str (Some s2) -> deficiency s1 = deficiency s2).
Proof. split; [exact dec_Z_val|]. split; [exact dec_Z_inj|]. split; [exact dec_N_digits|exact repr_str_inj]. Qed.
Print Assumptions C19_text.

(** (43) the last clause of the property WITHOUT any certificate premise: for EVERY network, with the exact ranks over the
         rationals (MathComp \rank) of S and of each class's difference vectors,
             rank S + sum_c (n_c - 1 - rank D_c) + l <= n,
         i.e. the linkage-class deficiencies sum to at most n - l - rank S = the deficiency (every subtraction is exact:
         rank D_c + 1 <= n_c is (6c), rank S + l <= n is (5a)).  (6) is this statement with the ranks read from accepted certificates. *)
Theorem C19_linkage_sum_exact : forall (net : list rxn) (iso : list str),
  let cs := fst (complex_graph net iso) in
  let arcs := snd (complex_graph net iso) in
  let L := linkage_classes arcs (length cs) in
  let m := length (species_order net iso) in
  let r := length (reaction_order net) in
  let F := mathcomp.algebra.rat.rat_fieldType in
  let rank_c (c : list N) := @mathcomp.algebra.mxalgebra.mxrank F (length (class_diffs cs arcs c)) m
                               (SK.lib.RankBridge.toM (length (class_diffs cs arcs c)) m (class_diffs cs arcs c)) in
  @mathcomp.algebra.mxalgebra.mxrank F m r (SK.lib.RankBridge.toM m r (build_S net iso)) +
  list_sum (map (fun c => length c - 1 - rank_c c) L) + length L <= length cs.
Proof. exact SK.proof.C19_SumExact.linkage_sum_exact_list. Qed.
Print Assumptions C19_linkage_sum_exact.

(** (44) the one-shot route with the nondegeneracy test: compute_crn_deficiency(run_nondegeneracy=True) that returns normally leaves,
         from ANY previous state, all four stored groups of the CURRENT network — its summary group, its class deficiencies, the
         deficiency-one record built from exactly these, and a nondegeneracy record whose nullity is (species - rank) and whose
         max_complex_size is the largest complex size of THIS network (cf. (23): only the separate call after an edit can mix). *)
Theorem C19_api_crn_nondeg_current : forall (o : opts) (x : hist_step) (mis : list nat) (st st' : ast),
  op_crn o x true mis st = (st', ROk) ->
  let sn := snap_of o x in
  s_sum st' = Some sn /\ s_ld st' = Some (stored_ld sn) /\ s_one st' = Some (stored_one sn (stored_ld sn)) /\
  exists d, s_nd st' = Some d /\
            nd_nullity d = length (species_order (hs_net x) (hs_iso x)) - rc_r (hs_rc x) /\
            nd_max d = max_complex_size (fst (complex_graph (hs_net x) (hs_iso x))).
Proof. exact api_crn_nondeg_current. Qed.
Print Assumptions C19_api_crn_nondeg_current.
