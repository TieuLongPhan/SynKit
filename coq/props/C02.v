(** C02 — reaction centre = changed bonds (+ H-H bonds); radius-k context = atoms within k bonds; chain.
    Statements only; every proof is [exact <lemma of proof/C02_*.v>].
    Vocabulary: [wf] (lib/LGraph.v); [std_consistent g] = standard_order is order_G - order_H on every edge
    (proved for every output of its_construct: C01_union); [is_h g u] = the ITS node u has top-level element "H";
    [rc_attr a] = the labels get_rc copies (element, charge, typesGH, atom_map); [dist_le g S k n] = some walk of
    at most k bonds leads from a node of S to n; [geq] = same node labels and same edge map.
    Only theorem 1 needs [std_consistent]; 1' is its counterpart for ITSGraph(ignore_aromaticity=True).
    Theorems 7-12: get_rc with options ([get_rc_x K disconnected keep_mtg], model/C02_Model.v) over ITS graphs whose node
    labels may be absent and whose bonds may carry is_mtg: [include_x m x] = standard_order != 0 or (m and is_mtg),
    [out_edge x] = (order, standard_order, is_mtg = flag or False), [out_edge_rec x] = the same without an is_mtg key,
    [sel_attr K a] = the labels of a selected by element_key, [sel_attr_hh K a] = the same plus typesGH (or its fallback),
    [inc_end m g n] / [hh_end g n] = n lies on an included / on an H-H bond, [charge_changed a] = the two charges in typesGH differ.
    Theorems 13-17: the RadiusExpand helpers. *)
From Coq Require Import List NArith ZArith Bool.
From SK Require Import lib.LGraph lib.C01_GraphLemmas model.C01_Model model.C01_Opts model.C02_Model model.C02_Store model.C02_Api proof.C02_Store proof.C02_StoreCtx proof.C02_StoreEquiv proof.C02_StoreNest proof.C02_StoreCtx2 proof.C02_CtxFix proof.C02_Spectator proof.C02_Implicit proof.C02_Saturate proof.C02_Api model.C02_Compare proof.C02_Compare proof.C02_Proof proof.C02_Opts proof.C02_OptsEquiv proof.C02_Ctx proof.C02_Lre proof.C02_LreTrace proof.C02_Sides proof.C02_Sides2 proof.C02_CtxEquiv proof.C02_LreEquiv proof.C02_CtxCentre proof.C02_CtxNest model.C01_String proof.C01_StringEH proof.C02_ExplicitH.
From SK Require Import model.C02_Store.
Import ListNotations.
Local Open Scope Z_scope.

(** 1. a bond is in the centre iff its two orders differ or both atoms are hydrogens; it keeps its labels.
       [std_consistent] (standard_order = order difference: every ITSGraph / construct output without ignore_aromaticity) cannot be
       dropped: get_rc reads standard_order only — witness C02_rc_edges_inconsistent_refuted (theorem 51).
       Model remark: [ensure_node] / [ensure_x] / [ensure_g] leave the state unchanged for an id that is not an atom of the ITS, where
       the Python helpers would raise KeyError; under [wf] every bond joins atoms of the graph, so the case is unreachable. *)
Theorem C02_rc_edges : forall g : its, wf g -> std_consistent g -> forall u v e,
  adj (get_rc g) u v = Some e <->
  adj g u v = Some e /\ (e_G e <> e_H e \/ (is_h g u = true /\ is_h g v = true)).
Proof. exact rc_edges. Qed.
Print Assumptions C02_rc_edges.

(** 2. the atoms of the centre are exactly the endpoints of its bonds, each with the selected ITS labels *)
Theorem C02_rc_nodes : forall g : its, wf g -> forall n b,
  label (get_rc g) n = Some b <->
  (exists a, label g n = Some a /\ b = rc_attr a) /\ (exists v e, adj (get_rc g) n v = Some e).
Proof. exact rc_nodes. Qed.
Print Assumptions C02_rc_nodes.

(** 3. extracting the centre of a centre changes nothing *)
Theorem C02_rc_idem : forall g : its, wf g -> geq (get_rc (get_rc g)) (get_rc g).
Proof. exact rc_idem. Qed.
Print Assumptions C02_rc_idem.

(** 4. get_rc commutes with every injective renumbering (hence isomorphic centres) *)
Theorem C02_rc_equivariant : forall f : N -> N, (forall a b, f a = f b -> a = b) -> forall g : its,
  get_rc (relabel f g) = relabel f (get_rc g).
Proof. exact rc_equivariant. Qed.
Print Assumptions C02_rc_equivariant.

(** 5. for k >= 1 the radius-k context is the induced subgraph of the ITS on exactly the atoms within k bonds
       of the centre *)
Theorem C02_ctx_spec : forall g : its, wf g -> forall k, (1 <= k)%nat ->
  let B := dist_le g (node_ids (get_rc g)) k in
  (forall n, In n (node_ids (extract_k g k)) <-> B n) /\
  (forall n a, label (extract_k g k) n = Some a <-> label g n = Some a /\ B n) /\
  (forall u v e, adj (extract_k g k) u v = Some e <-> adj g u v = Some e /\ B u /\ B v).
Proof. exact ctx_spec. Qed.
Print Assumptions C02_ctx_spec.

(** 6. centre = context(0) within context(k) within context(k') within the ITS (k <= k'), as atom and bond sets *)
Theorem C02_ctx_chain : forall g : its, wf g -> forall k k', (k <= k')%nat ->
  extract_k g 0 = get_rc g /\
  (forall n, In n (node_ids (extract_k g k)) -> In n (node_ids (extract_k g k'))) /\
  (forall u v e, adj (extract_k g k) u v = Some e -> adj (extract_k g k') u v = Some e) /\
  (forall n, In n (node_ids (extract_k g k')) -> In n (node_ids g)) /\
  (forall u v e, adj (extract_k g k') u v = Some e -> adj g u v = Some e).
Proof. exact ctx_chain. Qed.
Print Assumptions C02_ctx_chain.

(** 1'. ITSGraph(ignore_aromaticity=True) computes standard_order with |difference| < 1 zeroed ([ia_consistent], half-units: < 2);
        on such ITS graphs a bond is in the centre iff its orders differ by at least 1, or both atoms are hydrogens *)
Theorem C02_ia_construct : forall bal G H, ia_consistent (its_construct_ab true bal G H).
Proof. exact its_construct_ia_consistent. Qed.
Print Assumptions C02_ia_construct.

Theorem C02_rc_edges_ia : forall g : its, wf g -> ia_consistent g -> forall u v e,
  adj (get_rc g) u v = Some e <->
  adj g u v = Some e /\ (2 <= Z.abs (e_G e - e_H e) \/ (is_h g u = true /\ is_h g v = true)).
Proof. exact rc_edges_ia. Qed.
Print Assumptions C02_rc_edges_ia.

(** there the property's clause "order differs => in the centre" fails (by design of the option): 1.5 -> 1.0 *)
Theorem C02_rc_edges_ia_refuted : exists (g : its) (u v : N) (e : iedge),
  wf g /\ ia_consistent g /\ adj g u v = Some e /\ e_G e <> e_H e /\ adj (get_rc g) u v = None /\ gnodes (get_rc g) = [].
Proof. exact rc_edges_ia_refuted. Qed.
Print Assumptions C02_rc_edges_ia_refuted.

(** 7. get_rc with options: the bonds of the centre.  A bond of the ITS is kept with its order, standard_order and
       is_mtg (default False) iff it is included (changed, or keep_mtg and flagged) or an H-H bond; with disconnected=True
       every other ITS bond between two centre atoms is kept as well, without an is_mtg key *)
Theorem C02_rcx_edges : forall K d m (g : xits), wf g -> forall u v y,
  adj (get_rc_x K d m g) u v = Some y <->
  exists x, adj g u v = Some x /\
    (((include_x m x = true \/ is_hh_x g u v = true) /\ y = out_edge x) \/
     (include_x m x = false /\ is_hh_x g u v = false /\ d = true /\
      In u (node_ids (get_rc_x K d m g)) /\ In v (node_ids (get_rc_x K d m g)) /\ y = out_edge_rec x)).
Proof. exact rcx_edges. Qed.
Print Assumptions C02_rcx_edges.

(** 8. get_rc with options: the atoms of the centre and their labels (element_key).  Atoms on an included bond carry the
       selected labels; atoms reached only through an H-H bond additionally always carry typesGH (fallback if absent);
       with disconnected=True the atoms whose charge differs in typesGH are added with the selected labels *)
Theorem C02_rcx_nodes : forall K d m (g : xits), wf g -> forall n b,
  label (get_rc_x K d m g) n = Some b <->
  exists a, label g n = Some a /\
    ((inc_end m g n /\ b = sel_attr K a) \/
     (~ inc_end m g n /\ hh_end g n /\ b = sel_attr_hh K a) \/
     (~ inc_end m g n /\ ~ hh_end g n /\ d = true /\ charge_changed a = true /\ b = sel_attr K a)).
Proof. exact rcx_nodes. Qed.
Print Assumptions C02_rcx_nodes.

(** 9. keep_mtg=True adds exactly the flagged bonds: centre bonds = changed or is_mtg or H-H bonds *)
Theorem C02_rcx_keep_mtg : forall K (g : xits), wf g -> forall u v y,
  adj (get_rc_x K false true g) u v = Some y <->
  exists x, adj g u v = Some x /\ y = out_edge x /\
            (changed (fst x) = true \/ mtg_flag x = true \/ is_hh_x g u v = true).
Proof. exact rcx_keep_mtg. Qed.
Print Assumptions C02_rcx_keep_mtg.

(** 10. disconnected=True adds exactly the atoms whose charge differs in typesGH, and the centre becomes the induced
        subgraph of the ITS on its atoms (order and standard_order kept) *)
Theorem C02_rcx_disconnected : forall K m (g : xits), wf g ->
  let R := get_rc_x K true m g in
  (forall n, In n (node_ids R) <->
             In n (node_ids (get_rc_x K false m g)) \/ (exists a, label g n = Some a /\ charge_changed a = true)) /\
  (forall u v e, (exists y, adj R u v = Some y /\ fst y = e) <->
                 (exists x, adj g u v = Some x /\ fst x = e) /\ In u (node_ids R) /\ In v (node_ids R)).
Proof. exact rcx_disconnected. Qed.
Print Assumptions C02_rcx_disconnected.

(** 11. the default centre is a subgraph of every variant *)
Theorem C02_rcx_default_sub : forall K d m (g : xits), wf g ->
  (forall n, In n (node_ids (get_rc_x K false false g)) -> In n (node_ids (get_rc_x K d m g))) /\
  (forall u v y, adj (get_rc_x K false false g) u v = Some y -> adj (get_rc_x K d m g) u v = Some y).
Proof. exact rcx_default_sub. Qed.
Print Assumptions C02_rcx_default_sub.

(** 12. with the default element_key, disconnected=False and keep_mtg=False (or no bond flagged) get_rc_x is get_rc
        (theorems 1-4) once the is_mtg attributes are forgotten; on an ITS without is_mtg attributes it is get_rc with
        is_mtg = False on every bond.  No well-formedness hypothesis: the two programs run in lockstep. *)
Theorem C02_rcx_default : forall (g : fits) (m : bool),
  (m = false \/ forall u v x, In (u, v, x) (gedges g) -> mtg_flag x = false) ->
  gmap (fun a : xnode => a) (@fst iedge (option bool)) (get_rc_x K_default false m (emb_f g)) =
  gmap xn_of (fun e : iedge => e) (get_rc (strip_f g)).
Proof. exact rcx_default_is_get_rc. Qed.
Print Assumptions C02_rcx_default.

Theorem C02_rcx_default_emb : forall g : its,
  get_rc_x K_default false false (emb g) = gmap xn_of (fun e : iedge => (e, Some false)) (get_rc g).
Proof. exact rcx_default_emb. Qed.
Print Assumptions C02_rcx_default_emb.

(** 13. find_unequal_order_edges reports a subset of the centre atoms; exactly the centre atoms when standard_order is
        computed by ITSGraph (either way) and no H-H bond is unchanged; the inclusion can be strict *)
Theorem C02_unequal_sub_centre : forall g : its, wf g -> forall n, In n (unequal_nodes g) -> In n (node_ids (get_rc g)).
Proof. exact unequal_sub_rc. Qed.
Print Assumptions C02_unequal_sub_centre.

Theorem C02_unequal_is_centre : forall g : its, wf g -> (std_consistent g \/ ia_consistent g) ->
  (forall u v x, In (u, v, x) (gedges g) -> is_hh g u v = true -> e_std x <> 0) ->
  forall n, In n (unequal_nodes g) <-> In n (node_ids (get_rc g)).
Proof. exact unequal_eq_rc. Qed.
Print Assumptions C02_unequal_is_centre.

Theorem C02_unequal_strict : exists (g : its) (n : N),
  wf g /\ std_consistent g /\ In n (node_ids (get_rc g)) /\ ~ In n (unequal_nodes g).
Proof. exact unequal_strict. Qed.
Print Assumptions C02_unequal_strict.

(** 14. remove_normal_edges(., "standard_order") keeps every atom and exactly the bonds with standard_order != 0,
        all of which are centre bonds *)
Theorem C02_remove_normal : forall g : its, wf g ->
  gnodes (remove_normal g) = gnodes g /\
  (forall u v e, adj (remove_normal g) u v = Some e <-> adj g u v = Some e /\ e_std e <> 0) /\
  (forall u v e, adj (remove_normal g) u v = Some e -> adj (get_rc g) u v = Some e).
Proof. exact remove_normal_spec. Qed.
Print Assumptions C02_remove_normal.

(** 15. extract_k option handling: n_knn >= 0 is theorem 5/6's extract_k; n_knn = -1 is the context whose radius is the
        number of atoms of longest_radius_extension *)
Theorem C02_extract_k_nonneg : forall (g : its) k, 0 <= k -> extract_k_z g k = extract_k g (Z.to_nat k).
Proof. exact extract_k_z_nonneg. Qed.
Print Assumptions C02_extract_k_nonneg.

Theorem C02_extract_k_minus1 : forall g : its, wf g ->
  let rcn := node_ids (get_rc g) in
  let r := length (lre g rcn) in
  extract_k_z g (-1) = induced_sub g (knn g rcn r) /\
  (forall n, In n (node_ids (extract_k_z g (-1))) <-> dist_le g rcn r n).
Proof. exact extract_k_z_minus1. Qed.
Print Assumptions C02_extract_k_minus1.

(** 16. context extraction over a list: same length, element i is (ITS_i, extract_k(ITS_i, n_knn)) and nothing else *)
Theorem C02_context_list : forall (gs : list its) k,
  length (context_list gs k) = length gs /\
  forall i, nth_error (context_list gs k) i = option_map (fun g => (g, extract_k_z g k)) (nth_error gs i).
Proof. exact context_list_spec. Qed.
Print Assumptions C02_context_list.

(** 17. the ITSGraph variant used by the correspondence is C01's construction for the default options *)
Theorem C02_construct_default : forall G H, its_construct_ab false false G H = its_construct G H.
Proof. exact its_construct_ab_default. Qed.
Print Assumptions C02_construct_default.

(** 18. get_rc with options: commutes with every injective renumbering; returns a well-formed graph; is idempotent when
        element_key keeps element and typesGH (without element the H-H test fails on the centre: witness) *)
Theorem C02_rcx_equivariant : forall f : N -> N, (forall a b, f a = f b -> a = b) -> forall K d m (g : xits),
  get_rc_x K d m (relabel f g) = relabel f (get_rc_x K d m g).
Proof. exact rcx_equivariant. Qed.
Print Assumptions C02_rcx_equivariant.

Theorem C02_rcx_wf : forall K d m (g : xits), wf g -> wf (get_rc_x K d m g).
Proof. exact rcx_wf. Qed.
Print Assumptions C02_rcx_wf.

Theorem C02_rcx_idem : forall K d m (g : xits), k_el K = true -> k_gh K = true -> wf g ->
  geq (get_rc_x K d m (get_rc_x K d m g)) (get_rc_x K d m g).
Proof. exact rcx_idem. Qed.
Print Assumptions C02_rcx_idem.

Theorem C02_rcx_idem_needs_element : exists (K : keysel) (g : xits),
  wf g /\ k_gh K = true /\ length (gnodes (get_rc_x K false false g)) = 2%nat /\
  gnodes (get_rc_x K false false (get_rc_x K false false g)) = [].
Proof. exact rcx_idem_needs_element. Qed.
Print Assumptions C02_rcx_idem_needs_element.

(** ... and needs typesGH when disconnected=True: an isolated charge-changing atom loses typesGH in the centre *)
Theorem C02_rcx_idem_needs_typesGH : exists (K : keysel) (g : xits),
  wf g /\ k_el K = true /\ length (gnodes (get_rc_x K true false g)) = 1%nat /\
  gnodes (get_rc_x K true false (get_rc_x K true false g)) = [].
Proof. exact rcx_idem_needs_typesGH. Qed.
Print Assumptions C02_rcx_idem_needs_typesGH.

(** 19. longest_radius_extension (model with fuel, [lre]) returns the empty path or a centre atom followed by a
        duplicate-free chain of bonds whose standard_order is 0 ([zchain g n ext]: std0 on every consecutive pair).
        Read alone this would admit [] or a truncated (out-of-fuel) path: the empty alternative occurs only without centre
        atoms (theorem 51, C02_lre_nil_iff) and theorems 21 / 22 bound the result from below by EVERY duplicate-free chain. *)
Theorem C02_lre_path : forall (g : its) (rcn : list N),
  lre g rcn = [] \/
  exists n ext, In n rcn /\ lre g rcn = n :: ext /\ zchain g n ext /\ NoDup (n :: ext).
Proof. exact lre_path. Qed.
Print Assumptions C02_lre_path.

(** 20. the property as stated on the two sides of the reaction.  For the ITS that ITSGraph builds from a reactant graph G and
        a product graph H (base choice as for balance_its=False, or any balance_its when both graphs have equally many atoms),
        two atoms are joined in the centre iff they are bonded on some side and the order differs between the sides
        (absent = 0; with ignore_aromaticity: differs by at least 1 = 2 half-units), or both atoms are hydrogens.
        ([its_construct_ab ia bal] is C01's its_construct for ia = bal = false: theorem 17.) *)
Theorem C02_centre_vs_sides : forall ia bal (G H : mgraph), wf G -> wf H ->
  (bal = false \/ length (gnodes G) = length (gnodes H)) ->
  let I := its_construct_ab ia bal G H in
  forall u v,
    (exists e, adj (get_rc I) u v = Some e) <->
    (adj G u v <> None \/ adj H u v <> None) /\
    ((if ia then 2 <= Z.abs (order_in G u v - order_in H u v) else order_in G u v <> order_in H u v) \/
     (is_h I u = true /\ is_h I v = true)).
Proof. exact (fun ia bal G H WG WH _ => centre_vs_sides_all ia bal G H WG WH). Qed.
Print Assumptions C02_centre_vs_sides.

(** 21. ... and it is a longest one as seen from the first centre atom: no duplicate-free chain of standard_order = 0 bonds
        that starts in the first centre atom has more atoms than the returned path (for later centre atoms the search
        excludes the atoms of the paths found before, as the code does) *)
Theorem C02_lre_longest_first : forall (g : its) (n0 : N) (rest ext : list N), wf g -> In n0 (node_ids g) ->
  zchain g n0 ext -> NoDup (n0 :: ext) -> (length (n0 :: ext) <= length (lre g (n0 :: rest)))%nat.
Proof. exact lre_longest_first. Qed.
Print Assumptions C02_lre_longest_first.

(** 22. longest_radius_extension for ALL centre atoms.  [lre_trace g rcn []] records the calls of the inner search in order:
        (start atom, atoms excluded at that moment, path found).  The result is the first longest recorded path; every
        recorded path is a longest duplicate-free chain of standard_order = 0 bonds from its start atom among the chains that
        avoid the excluded atoms; a start atom is never excluded, the excluded atoms contain the atoms of all earlier paths,
        and a centre atom that starts no call lies on an earlier path. *)
Theorem C02_lre_is_first_longest : forall (g : its) rcn,
  lre g rcn = first_longest (map snd (lre_trace g rcn [])) [].
Proof. exact lre_is_first_longest. Qed.
Print Assumptions C02_lre_is_first_longest.

Theorem C02_lre_trace_longest : forall (g : its) (rcn : list N), wf g -> (forall n, In n rcn -> In n (node_ids g)) ->
  forall n v p, In (n, v, p) (lre_trace g rcn []) ->
  (length p <= length (lre g rcn))%nat /\
  forall ext, zchain g n ext -> NoDup (n :: ext) -> (forall x, In x ext -> ~ In x v) ->
              (length (n :: ext) <= length p)%nat.
Proof. exact lre_trace_longest. Qed.
Print Assumptions C02_lre_trace_longest.

Theorem C02_lre_trace_entries : forall (g : its) rcn vis n v p, In (n, v, p) (lre_trace g rcn vis) ->
  In n rcn /\ ~ In n v /\ p = lre_dfs g (lre_fuel g) n v [n] /\ (forall x, In x vis -> In x v).
Proof. exact lre_trace_entries. Qed.
Print Assumptions C02_lre_trace_entries.

Theorem C02_lre_trace_covers : forall (g : its) rcn vis n, In n rcn ->
  In n vis \/ exists v p, In (n, v, p) (lre_trace g rcn vis) \/
                          (exists m v' p', In (m, v', p') (lre_trace g rcn vis) /\ In n p').
Proof. exact lre_trace_covers. Qed.
Print Assumptions C02_lre_trace_covers.

(** 23. remove_normal_edges(., "is_mtg") keeps every atom and exactly the bonds whose is_mtg is absent or True;
        extract_subgraph is the induced subgraph on the listed atoms that exist *)
Theorem C02_remove_normal_mtg : forall g : xits, wf g ->
  gnodes (remove_normal_mtg g) = gnodes g /\
  (forall u v x, adj (remove_normal_mtg g) u v = Some x <-> adj g u v = Some x /\ snd x <> Some false).
Proof. exact remove_normal_mtg_spec. Qed.
Print Assumptions C02_remove_normal_mtg.

Theorem C02_extract_subgraph : forall (g : its) (ids : list N), wf g ->
  (forall n a, label (extract_subgraph g ids) n = Some a <-> label g n = Some a /\ In n ids) /\
  (forall u v e, adj (extract_subgraph g ids) u v = Some e <-> adj g u v = Some e /\ In u ids /\ In v ids).
Proof. exact extract_subgraph_spec. Qed.
Print Assumptions C02_extract_subgraph.

(** 24. the radius-k contexts commute with every injective renumbering (theorem 4 extended from the centre to the contexts) *)
Theorem C02_ctx_equivariant : forall f : N -> N, (forall a b, f a = f b -> a = b) -> forall (g : its) (k : nat),
  extract_k (relabel f g) k = relabel f (extract_k g k).
Proof. exact ctx_equivariant. Qed.
Print Assumptions C02_ctx_equivariant.

(** 20'. theorem 20 for EVERY balance_its (sides with different atom counts included): the base graph only decides the
         order of the ITS atoms and which atom_map a shared atom inherits *)
Theorem C02_centre_vs_sides_all : forall ia bal (G H : mgraph), wf G -> wf H ->
  let I := its_construct_ab ia bal G H in
  forall u v,
    (exists e, adj (get_rc I) u v = Some e) <->
    (adj G u v <> None \/ adj H u v <> None) /\
    ((if ia then 2 <= Z.abs (order_in G u v - order_in H u v) else order_in G u v <> order_in H u v) \/
     (is_h I u = true /\ is_h I v = true)).
Proof. exact centre_vs_sides_all. Qed.
Print Assumptions C02_centre_vs_sides_all.

Theorem C02_construct_wf : forall ia bal (G H : mgraph), wf G -> wf H -> wf (its_construct_ab ia bal G H).
Proof. exact wf_construct_ab. Qed.
Print Assumptions C02_construct_wf.

(** 25. a context carries its centre: for k >= 1 the centre of the radius-k context is the centre of the ITS *)
Theorem C02_rc_of_context : forall g : its, wf g -> forall k, (1 <= k)%nat ->
  geq (get_rc (extract_k g k)) (get_rc g).
Proof. exact rc_of_context. Qed.
Print Assumptions C02_rc_of_context.

(** 26. contexts nest: for 1 <= k <= k' the radius-k context of the radius-k' context is the radius-k context of the ITS *)
Theorem C02_ctx_of_ctx : forall g : its, wf g -> forall k k', (1 <= k)%nat -> (k <= k')%nat ->
  geq (extract_k (extract_k g k') k) (extract_k g k).
Proof. exact ctx_of_ctx. Qed.
Print Assumptions C02_ctx_of_ctx.

(** 27. ITS graphs whose top-level labels are (reactant, product) PAIRS (ITSConstruction.construct with its default store=True;
        model/C02_Store.v: [snode] = labels that are scalars [Sc v] or pairs [Pr a b], [get_rc_S] = the instance of the generic
        [get_rc_g]).  A hydrogen is the element "H" or the pair ("H", "H") (_is_hydrogen; /repo before fix 01341f7 knew no pair as
        a hydrogen and get_rc dropped the unchanged H-H bonds of every store=True ITS — finding in known_findings.d/C02.json).
        [flat] keeps the reactant side of every pair, except that an element pair ("H", q), q other than "H", becomes "*".
        (a) get_rc_S runs in lock step with get_rc_x on the flattened graph: same atoms, same bonds, flattened labels — so theorems
            7-11, 18 describe its atoms and bonds;
        (b) every selected label of a centre atom IS the ITS atom's label, whatever its shape (a pair stays that pair);
        (c) the bonds of the centre for every option setting and every label shape (the H-H clause included), and its reading on a
            store=True ITS: included bonds and bonds between two atoms whose element pair is ("H", "H");
        (d) witnesses: the unchanged H-H bond of a store=True ITS is in the centre, a ("H","C") atom is no hydrogen;
        (e) the flattened centre of a store=True ITS is the centre of its store=False twin, for every option setting, when every
            atom has the same element on both sides; the twin of construct(store=True) is construct(store=False): the way the ITS
            stores its labels does not change the centre. *)
Theorem C02_rcS_flat : forall K d m (g : sits), gmapn flat (get_rc_S K d m g) = get_rc_x K d m (gmapn flat g).
Proof. exact rcS_flat. Qed.
Print Assumptions C02_rcS_flat.

Theorem C02_rcS_labels : forall K d m (g : sits), NoDup (node_ids g) -> forall n b, label (get_rc_S K d m g) n = Some b ->
  exists a, label g n = Some a /\
    n_el b = pick (k_el K) (n_el a) /\ n_ch b = pick (k_ch K) (n_ch a) /\ n_amap b = pick (k_amap K) (n_amap a) /\
    n_arom b = pick (k_arom K) (n_arom a) /\ n_hc b = pick (k_hc K) (n_hc a) /\ n_nb b = pick (k_nb K) (n_nb a) /\
    (n_gh b = pick (k_gh K) (n_gh a) \/ n_gh b = Some (match n_gh a with Some t => t | None => HH_FALLBACK end)).
Proof. exact rcS_labels. Qed.
Print Assumptions C02_rcS_labels.

Theorem C02_rcS_edges : forall K d m (g : sits), wf g -> forall u v y,
  adj (get_rc_S K d m g) u v = Some y <->
  exists x, adj g u v = Some x /\
    (((include_x m x = true \/ is_hh_g ish_S g u v = true) /\ y = out_edge x) \/
     (include_x m x = false /\ is_hh_g ish_S g u v = false /\ d = true /\
      In u (node_ids (get_rc_S K d m g)) /\ In v (node_ids (get_rc_S K d m g)) /\ y = out_edge_rec x)).
Proof. exact rcS_edges. Qed.
Print Assumptions C02_rcS_edges.

Theorem C02_rcS_store_true_bonds : forall K m (g : itsS), wf g -> forall u v y,
  adj (get_rc_S K false m (emb_S g)) u v = Some y <->
  exists x, adj g u v = Some x /\
    (include_x m (x, None) = true \/
     (exists a b, label g u = Some a /\ label g v = Some b /\ s_el a = (EL_H, EL_H) /\ s_el b = (EL_H, EL_H))) /\
    y = (x, Some false).
Proof. exact rcS_store_true_bonds. Qed.
Print Assumptions C02_rcS_store_true_bonds.

Theorem C02_rcS_hh_forced :
  node_ids (get_rc_S K_default false false (emb_S hhS)) = [1%N; 2%N] /\
  adj (get_rc_S K_default false false (emb_S hhS)) 1%N 2%N = Some (IE 2 2 0, Some false) /\
  node_ids (get_rc (gmap twin (fun e : iedge => e) hhS)) = [1%N; 2%N] /\
  gnodes (get_rc_S K_default false false (emb_S hcS)) = [].
Proof. exact rcS_hh_forced. Qed.
Print Assumptions C02_rcS_hh_forced.

Theorem C02_rcS_twin : forall K d m (g : itsS),
  (forall n a, In (n, a) (gnodes g) -> fst (s_el a) = snd (s_el a)) ->
  gmapn flat (get_rc_S K d m (emb_S g)) = get_rc_x K d m (emb (gmap twin (fun e : iedge => e) g)).
Proof. exact rcS_twin. Qed.
Print Assumptions C02_rcS_twin.

Theorem C02_rcS_construct : forall K d m o G H,
  (forall n a, In (n, a) (gnodes (its_construct_S o G H)) -> fst (s_el a) = snd (s_el a)) ->
  gmapn flat (get_rc_S K d m (emb_S (its_construct_S o G H))) = get_rc_x K d m (emb (its_construct_o o G H)).
Proof. exact rcS_construct. Qed.
Print Assumptions C02_rcS_construct.

(** 28. find_nearest_neighbors + extract_subgraph for ANY list of start atoms, generic in the node and bond types ([ball_sub],
        model/C02_Store.v): the induced subgraph on exactly the atoms within k bonds of the start atoms (start atoms must be atoms
        of the graph: networkx raises otherwise); balls grow with the radius.  Instance: extract_k on ITS graphs with pair / absent
        labels — theorems 5 and 6 for every label shape ([walk_g] / [dist_le_g] are [walk] / [dist_le] at type [its]). *)
Theorem C02_ball_sub_spec : forall (A B : Type) (g : lgraph A B) (S : list N) (k : nat), wf g ->
  (forall s, In s S -> In s (node_ids g)) ->
  let Bk := dist_le_g g S k in
  (forall n, In n (node_ids (ball_sub g S k)) <-> Bk n) /\
  (forall n a, label (ball_sub g S k) n = Some a <-> label g n = Some a /\ Bk n) /\
  (forall u v e, adj (ball_sub g S k) u v = Some e <-> adj g u v = Some e /\ Bk u /\ Bk v).
Proof. exact (@C02_Ball.ball_sub_spec). Qed.
Print Assumptions C02_ball_sub_spec.

Theorem C02_ball_sub_mono : forall (A B : Type) (g : lgraph A B) (S : list N) (k k' : nat), wf g -> (k <= k')%nat ->
  (forall n, In n (node_ids (ball_sub g S k)) -> In n (node_ids (ball_sub g S k'))) /\
  (forall u v e, adj (ball_sub g S k) u v = Some e -> adj (ball_sub g S k') u v = Some e).
Proof. exact (@C02_Ball.ball_sub_mono). Qed.
Print Assumptions C02_ball_sub_mono.

Theorem C02_dist_le_g_its : forall (g : its) S k n, dist_le_g g S k n <-> dist_le g S k n.
Proof. exact C02_Ball.dist_le_g_its. Qed.
Print Assumptions C02_dist_le_g_its.

Theorem C02_ctxS_spec : forall g : sits, wf g -> forall k, (1 <= k)%nat ->
  let Bk := dist_le_g g (node_ids (get_rc_S K_default false false g)) k in
  (forall n, In n (node_ids (extract_k_S g k)) <-> Bk n) /\
  (forall n a, label (extract_k_S g k) n = Some a <-> label g n = Some a /\ Bk n) /\
  (forall u v e, adj (extract_k_S g k) u v = Some e <-> adj g u v = Some e /\ Bk u /\ Bk v).
Proof. exact ctxS_spec. Qed.
Print Assumptions C02_ctxS_spec.

Theorem C02_ctxS_chain : forall g : sits, wf g -> forall k k', (k <= k')%nat ->
  extract_k_S g 0 = get_rc_S K_default false false g /\
  (forall n, In n (node_ids (extract_k_S g k)) -> In n (node_ids (extract_k_S g k'))) /\
  (forall u v, adj (extract_k_S g k) u v <> None -> adj (extract_k_S g k') u v <> None) /\
  ((1 <= k)%nat -> forall u v e, adj (extract_k_S g k) u v = Some e -> adj (extract_k_S g k') u v = Some e) /\
  (forall n, In n (node_ids (extract_k_S g k')) -> In n (node_ids g)) /\
  (forall u v, adj (extract_k_S g k') u v <> None -> adj g u v <> None).
Proof. exact ctxS_chain. Qed.
Print Assumptions C02_ctxS_chain.

(** 29. Calling conventions of RadiusExpand (model/C02_Api.v).
        (a) context_extraction on a reaction dict (insertion-ordered; [None] = the call raises): when data[its_key] is a graph the
            result carries extract_k of it under context_key, every other entry unchanged, the input's keys in the input's order with
            context_key appended only when it is new; otherwise the call raises.  context_key = its_key overwrites the ITS entry.
        (b) paralle_context_extraction (n_jobs = 1): all-or-error, element-wise, length and order preserved.
        (c) find_nearest_neighbors called directly: n_knn <= 0 gives the start atoms back; n_knn >= 1 with start atoms of the graph
            gives exactly the atoms within n_knn bonds (theorem 5's ball for ANY start list); a start atom outside the graph raises.
        (d) extract_k with n_knn < -1: the induced subgraph of the ITS on the centre atoms (not the centre). *)
Theorem C02_context_extraction_dict : forall (d : dict) (ik ck : N) (k : Z),
  match assoc ik d with
  | Some (DG g) =>
      exists r, context_extraction_d d ik ck k = Some r /\
        assoc ck r = Some (DG (extract_k_z g k)) /\
        (forall k', k' <> ck -> assoc k' r = assoc k' d) /\
        map fst r = (if existsb (N.eqb ck) (map fst d) then map fst d else map fst d ++ [ck]) /\
        (NoDup (map fst d) -> NoDup (map fst r))
  | _ => context_extraction_d d ik ck k = None
  end.
Proof. exact context_extraction_d_spec. Qed.
Print Assumptions C02_context_extraction_dict.

Theorem C02_context_extraction_same_key : forall (d : dict) (ik : N) (k : Z) g, assoc ik d = Some (DG g) ->
  exists r, context_extraction_d d ik ik k = Some r /\ assoc ik r = Some (DG (extract_k_z g k)) /\ map fst r = map fst d.
Proof. exact context_extraction_d_same_key. Qed.
Print Assumptions C02_context_extraction_same_key.

Theorem C02_parallel_dict : forall (ds : list dict) (ik ck : N) (k : Z),
  (forall rs, parallel_d ds ik ck k = Some rs ->
     length rs = length ds /\
     forall i, nth_error rs i = match nth_error ds i with Some d => context_extraction_d d ik ck k | None => None end) /\
  (parallel_d ds ik ck k = None <-> exists d, In d ds /\ context_extraction_d d ik ck k = None).
Proof. exact parallel_d_spec. Qed.
Print Assumptions C02_parallel_dict.

Theorem C02_find_nearest_neighbors_direct : forall (g : its) (seeds : list N) (k : Z),
  (k <= 0 -> exists l, fnn g seeds k = Some l /\ forall n, In n l <-> In n seeds) /\
  (0 < k -> (forall s, In s seeds -> In s (node_ids g)) ->
     exists l, fnn g seeds k = Some l /\ forall n, In n l <-> dist_le g seeds (Z.to_nat k) n) /\
  (0 < k -> (exists s, In s seeds /\ ~ In s (node_ids g)) -> fnn g seeds k = None).
Proof. exact fnn_spec. Qed.
Print Assumptions C02_find_nearest_neighbors_direct.

Theorem C02_extract_k_negative : forall (g : its) k, wf g -> k < -1 ->
  (forall n, In n (node_ids (extract_k_z g k)) <-> In n (node_ids (get_rc g))) /\
  (forall n a, label (extract_k_z g k) n = Some a <-> label g n = Some a /\ In n (node_ids (get_rc g))) /\
  (forall u v e, adj (extract_k_z g k) u v = Some e <->
                 adj g u v = Some e /\ In u (node_ids (get_rc g)) /\ In v (node_ids (get_rc g))).
Proof. exact extract_k_z_negative. Qed.
Print Assumptions C02_extract_k_negative.

(** 30. get_rc pass by pass ([rc_pass1] .. [rc_pass4], model/C02_Api.v; the harness calls _add_changed_bonds, _add_hh_bonds,
        _add_charge_change_nodes, _reconnect_rc_edges one by one on the same graph and compares the state after each):
        (a) get_rc is the state after pass 2 (disconnected=False) resp. pass 4 (disconnected=True);
        (b) after _add_changed_bonds: exactly the included bonds with [out_edge], exactly their endpoints with the selected labels;
        (c) later passes only add: an atom keeps the labels it was inserted with, a bond its attributes (first wins). *)
Theorem C02_rc_passes_compose : forall K m (g : xits),
  get_rc_x K false m g = LG (fst (rc_pass2 K m g)) (snd (rc_pass2 K m g)) /\
  get_rc_x K true m g = LG (fst (rc_pass4 K m g)) (snd (rc_pass4 K m g)).
Proof. exact rc_passes_compose. Qed.
Print Assumptions C02_rc_passes_compose.

Theorem C02_rc_pass1 : forall K m (g : xits), wf g ->
  (forall u v y, find_edge u v (snd (rc_pass1 K m g)) = Some y <->
                 exists x, adj g u v = Some x /\ include_x m x = true /\ y = out_edge x) /\
  (forall n b, assoc n (fst (rc_pass1 K m g)) = Some b <->
               exists a, label g n = Some a /\ b = sel_attr K a /\
                         exists u v x, In (u, v, x) (gedges g) /\ include_x m x = true /\ (n = u \/ n = v)).
Proof. exact rc_pass1_spec. Qed.
Print Assumptions C02_rc_pass1.

Theorem C02_rc_passes_grow : forall K m (g : xits),
  (forall n b, assoc n (fst (rc_pass1 K m g)) = Some b -> assoc n (fst (rc_pass2 K m g)) = Some b) /\
  (forall u v y, find_edge u v (snd (rc_pass1 K m g)) = Some y -> find_edge u v (snd (rc_pass2 K m g)) = Some y) /\
  (NoDup (node_ids g) -> forall n b, assoc n (fst (rc_pass2 K m g)) = Some b -> assoc n (fst (rc_pass3 K m g)) = Some b) /\
  (forall u v y, find_edge u v (snd (rc_pass3 K m g)) = Some y -> find_edge u v (snd (rc_pass4 K m g)) = Some y).
Proof. exact rc_passes_grow. Qed.
Print Assumptions C02_rc_passes_grow.

(** 31. The remaining clauses of the property on ITS graphs of ANY label shape (pair labels of store=True, absent labels):
        the centre is well-formed, extracting the centre of a centre changes nothing (element_key keeps element and typesGH, as in
        theorem 18), and get_rc commutes with every injective renumbering.  Theorems 18 and 31 are the two instances of the
        same theorems about the generic [get_rc_g] (proof/C02_Generic.v). *)
Theorem C02_rcS_wf : forall K d m (g : sits), wf g -> wf (get_rc_S K d m g).
Proof. exact rcS_wf. Qed.
Print Assumptions C02_rcS_wf.

Theorem C02_rcS_idem : forall K d m (g : sits), k_el K = true -> k_gh K = true -> wf g ->
  geq (get_rc_S K d m (get_rc_S K d m g)) (get_rc_S K d m g).
Proof. exact rcS_idem. Qed.
Print Assumptions C02_rcS_idem.

Theorem C02_rcS_equivariant : forall f : N -> N, (forall a b, f a = f b -> a = b) -> forall K d m (g : sits), wf g ->
  get_rc_S K d m (relabel f g) = relabel f (get_rc_S K d m g).
Proof. exact rcS_equivariant. Qed.
Print Assumptions C02_rcS_equivariant.

Theorem C02_ball_sub_equivariant : forall f : N -> N, (forall a b, f a = f b -> a = b) ->
  forall (A B : Type) (g : lgraph A B) (seeds : list N) (k : nat),
  ball_sub (relabel f g) (map f seeds) k = relabel f (ball_sub g seeds k).
Proof. exact (fun f Hinj A B => @C02_Ball.ball_sub_equivariant f Hinj A B). Qed.
Print Assumptions C02_ball_sub_equivariant.

Theorem C02_ctxS_equivariant : forall f : N -> N, (forall a b, f a = f b -> a = b) -> forall (g : sits) (k : nat), wf g ->
  extract_k_S (relabel f g) k = relabel f (extract_k_S g k).
Proof. exact ctxS_equivariant. Qed.
Print Assumptions C02_ctxS_equivariant.

Theorem C02_unequalS_sub_centre : forall K d m (g : sits), wf g ->
  forall n, In n (unequal_nodes_g g) -> In n (node_ids (get_rc_S K d m g)).
Proof. exact unequalS_sub_centre. Qed.
Print Assumptions C02_unequalS_sub_centre.

(** 32. rsmi_to_its(core=True, explicit_hydrogen=True) = get_rc of the explicit-hydrogen ITS ([h_to_explicit_its]: C01's model of
        h_to_explicit(its=True), compared with the code by C01 and, composed with get_rc, by the wrap-core-eh cases here).
        Making hydrogens explicit does not change the bonds of the centre, provided no hydrogen ATOM carries implicit hydrogens
        on both sides (witness: without it a new H-H bond enters the centre); the centre atoms are the same and keep their labels
        up to the hydrogen counts that h_to_explicit takes out of typesGH ([hx_upd]). *)
Theorem C02_explicit_h_bonds : forall I : its, wf I ->
  (forall n a, label I n = Some a -> i_el a = EL_H -> hx_count a <= 0) ->
  forall u v e, adj (get_rc (fst (h_to_explicit_its I))) u v = Some e <-> adj (get_rc I) u v = Some e.
Proof. exact rc_explicit_h_bonds. Qed.
Print Assumptions C02_explicit_h_bonds.

Theorem C02_explicit_h_atoms : forall I : its, wf I ->
  (forall n a, label I n = Some a -> i_el a = EL_H -> hx_count a <= 0) ->
  forall n b, label (get_rc (fst (h_to_explicit_its I))) n = Some b <->
              exists a, label I n = Some a /\ b = rc_attr (hx_upd a) /\ exists v e, adj (get_rc I) n v = Some e.
Proof. exact rc_explicit_h_atoms. Qed.
Print Assumptions C02_explicit_h_atoms.

Theorem C02_explicit_h_needs_hypothesis :
  wf hh_implicit /\ gedges (get_rc hh_implicit) = [] /\
  gedges (get_rc (fst (h_to_explicit_its hh_implicit))) = [(1%N, 2%N, IE 2 2 0)].
Proof. exact rc_explicit_h_needs_hypothesis. Qed.
Print Assumptions C02_explicit_h_needs_hypothesis.

(** 33. Theorem 20' for ITSConstruction.construct(G, H, store=True) (every ignore_aromaticity / balance_its value, default
        attribute defaults): when every atom has the same element on both sides, two atoms are joined in the centre of the
        pair-labelled ITS iff they are bonded on some side and the order differs between G and H (by >= 1 under ignore_aromaticity),
        or both are hydrogens — element pair ("H", "H").  From 20', 12 and 27(e). *)
Theorem C02_centre_vs_sides_store_true : forall ia bal (G H : mgraph), wf G -> wf H ->
  let S := its_construct_S (CO ia bal dflt_nattr) G H in
  (forall n a, In (n, a) (gnodes S) -> fst (s_el a) = snd (s_el a)) ->
  forall u v,
    (exists e, adj (get_rc_S K_default false false (emb_S S)) u v = Some e) <->
    (adj G u v <> None \/ adj H u v <> None) /\
    ((if ia then 2 <= Z.abs (order_in G u v - order_in H u v) else order_in G u v <> order_in H u v) \/
     (is_h_g ish_S (emb_S S) u = true /\ is_h_g ish_S (emb_S S) v = true)).
Proof. exact centre_vs_sides_store_true. Qed.
Print Assumptions C02_centre_vs_sides_store_true.

(** 34. extract_k(its, n_knn) for every option value on graphs of any label shape ([extract_k_S_z]); n_knn = -1 goes through the
        SKELETON of the graph ([skel]: same atom ids and bonds, placeholder labels — longest_radius_extension reads nothing else),
        so theorems 19, 21, 22 about [lre] apply to [lre (skel g)]. *)
Theorem C02_extract_k_S_nonneg : forall (g : sits) k, 0 <= k -> extract_k_S_z g k = extract_k_S g (Z.to_nat k).
Proof. exact extract_k_S_z_nonneg. Qed.
Print Assumptions C02_extract_k_S_nonneg.

Theorem C02_extract_k_S_minus1 : forall g : sits, wf g ->
  let rcn := node_ids (get_rc_S K_default false false g) in
  let r := length (lre (skel g) rcn) in
  extract_k_S_z g (-1) = ball_sub g rcn r /\
  (forall n, In n (node_ids (extract_k_S_z g (-1))) <-> dist_le_g g rcn r n) /\
  (lre (skel g) rcn = [] \/
   exists n ext, In n rcn /\ lre (skel g) rcn = n :: ext /\ zchain (skel g) n ext /\ NoDup (n :: ext)).
Proof. exact extract_k_S_z_minus1. Qed.
Print Assumptions C02_extract_k_S_minus1.

Theorem C02_skel : forall (A : Type) (g : lgraph A xedge) u v,
  node_ids (skel g) = node_ids g /\
  adj (skel g) u v = option_map (@fst iedge (option bool)) (adj g u v) /\
  std0 (skel g) u v = match adj g u v with Some x => e_std (fst x) =? 0 | None => false end.
Proof. exact (fun A g u v => conj (node_ids_skel g) (conj (adj_skel g u v) (std0_skel g u v))). Qed.
Print Assumptions C02_skel.

(** 35. Theorems 25 and 26 for every label shape.  (a) for get_rc with any element_key / keep_mtg (disconnected = False): the induced
        subgraph on the radius-k ball around ANY start list that contains the centre atoms has the same centre (k = 0 included);
        (b) the same on pair-/absent-label graphs; (c) a context carries its centre; (d) contexts nest. *)
Theorem C02_rcx_of_ball : forall K m (G : xits), wf G -> forall (S : list N) (k : nat),
  (forall n, In n (node_ids (get_rc_x K false m G)) -> In n S) ->
  geq (get_rc_x K false m (ball_sub G S k)) (get_rc_x K false m G).
Proof. exact rcx_of_ball. Qed.
Print Assumptions C02_rcx_of_ball.

Theorem C02_rcS_of_ball : forall K m (g : sits) (S : list N) (k : nat), wf g ->
  (forall n, In n (node_ids (get_rc_S K false m g)) -> In n S) ->
  geq (get_rc_S K false m (ball_sub g S k)) (get_rc_S K false m g).
Proof. exact rcS_of_ball. Qed.
Print Assumptions C02_rcS_of_ball.

Theorem C02_rcS_of_context : forall (g : sits) k, wf g -> (1 <= k)%nat ->
  geq (get_rc_S K_default false false (extract_k_S g k)) (get_rc_S K_default false false g).
Proof. exact rcS_of_context. Qed.
Print Assumptions C02_rcS_of_context.

Theorem C02_ctxS_of_ctx : forall g : sits, wf g -> forall k k', (1 <= k)%nat -> (k <= k')%nat ->
  geq (extract_k_S (extract_k_S g k') k) (extract_k_S g k).
Proof. exact ctxS_of_ctx. Qed.
Print Assumptions C02_ctxS_of_ctx.

(** 36. compare_graphs(graph1, graph2, node_attrs, edge_attrs) of its_decompose.py ([compare_graphs_x], model/C02_Compare.v):
        True iff the two graphs have the same atoms, equal selected labels (absent = None), the same bonded pairs and equal selected
        bond attributes; labelled-graph equality implies True under every selection, and with every attribute selected True is
        exactly labelled-graph equality; the library's own comparator accepts the centre of a centre (the idempotence clause). *)
Theorem C02_compare_graphs : forall NA EA (g1 g2 : xits), wf g1 -> wf g2 ->
  (compare_graphs_x NA EA g1 g2 = true <->
   (forall n, In n (node_ids g1) <-> In n (node_ids g2)) /\
   (forall n a b, label g1 n = Some a -> label g2 n = Some b -> sel_attr NA a = sel_attr NA b) /\
   (forall u v, adj g1 u v <> None <-> adj g2 u v <> None) /\
   (forall u v x y, adj g1 u v = Some x -> adj g2 u v = Some y -> sel_edge EA x = sel_edge EA y)).
Proof. exact compare_graphs_spec. Qed.
Print Assumptions C02_compare_graphs.

Theorem C02_compare_all_is_equality : forall g1 g2 : xits, wf g1 -> wf g2 ->
  (compare_graphs_x K_all E_all g1 g2 = true <-> geq g1 g2).
Proof. exact compare_all_geq. Qed.
Print Assumptions C02_compare_all_is_equality.

Theorem C02_compare_rc_idem : forall NA EA K d m (g : xits), k_el K = true -> k_gh K = true -> wf g ->
  compare_graphs_x NA EA (get_rc_x K d m (get_rc_x K d m g)) (get_rc_x K d m g) = true.
Proof. exact compare_rc_idem. Qed.
Print Assumptions C02_compare_rc_idem.

(** 37. _add_bond_order_changes (the "step 1" helper of the older get_rc, still in its_decompose.py, no caller): exactly the bonds
        whose two orders differ (standard_order is not consulted) with order and standard_order only, exactly their endpoints with the
        selected labels; where standard_order is zero exactly for equal orders these are the bonds of get_rc's first pass. *)
Theorem C02_add_bond_order_changes : forall K (g : xits), wf g ->
  (forall u v y, find_edge u v (snd (add_bond_order_changes K g)) = Some y <->
                 exists x, adj g u v = Some x /\ e_G (fst x) <> e_H (fst x) /\ y = out_edge_rec x) /\
  (forall n b, assoc n (fst (add_bond_order_changes K g)) = Some b <->
               exists a, label g n = Some a /\ b = sel_attr K a /\
                         exists u v x, In (u, v, x) (gedges g) /\ e_G (fst x) <> e_H (fst x) /\ (n = u \/ n = v)).
Proof. exact add_bond_order_changes_spec. Qed.
Print Assumptions C02_add_bond_order_changes.

Theorem C02_add_bond_order_changes_is_pass1 : forall K (g : xits), wf g ->
  (forall u v x, In (u, v, x) (gedges g) -> (e_std (fst x) = 0 <-> e_G (fst x) = e_H (fst x))) ->
  forall u v, find_edge u v (snd (add_bond_order_changes K g)) <> None <-> find_edge u v (snd (rc_pass1 K false g)) <> None.
Proof. exact add_bond_order_changes_is_pass1. Qed.
Print Assumptions C02_add_bond_order_changes_is_pass1.

(** 38. The models agree where they overlap: on a graph all of whose labels are scalars the pair-label model [get_rc_S] IS the
        option model [get_rc_x] (which is [get_rc] with default options on full-label graphs: theorem 12). *)
Theorem C02_rcS_scalar : forall K d m (g : xits), wf g ->
  get_rc_S K d m (gmapn sn_of_x g) = gmapn sn_of_x (get_rc_x K d m g).
Proof. exact rcS_scalar. Qed.
Print Assumptions C02_rcS_scalar.

(** 39. longest_radius_extension commutes with every injective renumbering (a renumbering keeps the edge-list / adjacency order, on
        which the choice among equally long paths depends), hence extract_k(its, n_knn) does for EVERY option value — theorem 24 extended
        to n_knn = -1 and n_knn < -1. *)
Theorem C02_lre_equivariant : forall f : N -> N, (forall a b, f a = f b -> a = b) -> forall (g : its) (rcn : list N),
  lre (relabel f g) (map f rcn) = map f (lre g rcn).
Proof. exact lre_relabel. Qed.
Print Assumptions C02_lre_equivariant.

Theorem C02_extract_k_z_equivariant : forall f : N -> N, (forall a b, f a = f b -> a = b) -> forall (g : its) (k : Z),
  extract_k_z (relabel f g) k = relabel f (extract_k_z g k).
Proof. exact extract_k_z_equivariant. Qed.
Print Assumptions C02_extract_k_z_equivariant.

(** 40. (a) extract_k on pair-/absent-label graphs commutes with renumbering for every option value (n_knn = -1 through the skeleton);
        (b) the way the ITS stores its labels does not change the contexts: for k >= 1 the flattened radius-k context of a store=True
        ITS is the radius-k context of its store=False twin (elements equal on both sides); end to end on ITSConstruction. *)
Theorem C02_ctxS_z_equivariant : forall f : N -> N, (forall a b, f a = f b -> a = b) -> forall (g : sits) (k : Z), wf g ->
  extract_k_S_z (relabel f g) k = relabel f (extract_k_S_z g k).
Proof. exact ctxS_z_equivariant. Qed.
Print Assumptions C02_ctxS_z_equivariant.

Theorem C02_ctxS_twin : forall (g : itsS) (k : nat),
  (forall n a, In (n, a) (gnodes g) -> fst (s_el a) = snd (s_el a)) -> (1 <= k)%nat ->
  gmapn flat (extract_k_S (emb_S g) k) = emb (extract_k (gmap twin (fun e : iedge => e) g) k).
Proof. exact ctxS_twin. Qed.
Print Assumptions C02_ctxS_twin.

Theorem C02_ctxS_construct : forall o G H (k : nat),
  (forall n a, In (n, a) (gnodes (its_construct_S o G H)) -> fst (s_el a) = snd (s_el a)) -> (1 <= k)%nat ->
  gmapn flat (extract_k_S (emb_S (its_construct_S o G H)) k) = emb (extract_k (its_construct_o o G H) k).
Proof. exact ctxS_construct. Qed.
Print Assumptions C02_ctxS_construct.

(** 41. Theorems 8 and 11 for every label shape: which atoms the centre has and with which labels ([selS] / [selS_hh] of the ITS atom's
        labels, pairs untouched), for every element_key / disconnected / keep_mtg; the default centre is within every variant. *)
Theorem C02_rcS_nodes : forall K d m (g : sits), wf g -> forall n b,
  label (get_rc_S K d m g) n = Some b <->
  exists a, label g n = Some a /\
    (((exists v x, adj g n v = Some x /\ include_x m x = true) /\ b = selS K a) \/
     (~ (exists v x, adj g n v = Some x /\ include_x m x = true) /\
      (exists v x, adj g n v = Some x /\ is_hh_g ish_S g n v = true) /\ b = selS_hh K a) \/
     (~ (exists v x, adj g n v = Some x /\ include_x m x = true) /\
      ~ (exists v x, adj g n v = Some x /\ is_hh_g ish_S g n v = true) /\ d = true /\ cc_S a = true /\ b = selS K a)).
Proof. exact rcS_nodes. Qed.
Print Assumptions C02_rcS_nodes.

Theorem C02_rcS_default_sub : forall K d m (g : sits), wf g ->
  (forall n, In n (node_ids (get_rc_S K false false g)) -> In n (node_ids (get_rc_S K d m g))) /\
  (forall u v y, adj (get_rc_S K false false g) u v = Some y -> adj (get_rc_S K d m g) u v = Some y).
Proof. exact (fun K => rcg_default_sub (selS K) (selS_hh K) ish_S cc_S). Qed.
Print Assumptions C02_rcS_default_sub.

(** 42. Clause 1 of the property, verbatim, on graphs of ANY label shape: when standard_order is the order difference a bond is in
        the centre iff its two orders differ or both atoms are hydrogens ("H", or the pair ("H","H")); under the ignore_aromaticity
        rule: iff the orders differ by at least 1 (2 half-units).  Every ITS that ITSConstruction builds with store=True satisfies
        the hypothesis its ignore_aromaticity option names. *)
Theorem C02_rcS_edges_std : forall g : sits, wf g ->
  (forall u v x, In (u, v, x) (gedges g) -> e_std (fst x) = e_G (fst x) - e_H (fst x)) ->
  forall u v y,
  adj (get_rc_S K_default false false g) u v = Some y <->
  exists x, adj g u v = Some x /\ (e_G (fst x) <> e_H (fst x) \/ is_hh_g ish_S g u v = true) /\ y = out_edge x.
Proof. exact rcS_edges_std. Qed.
Print Assumptions C02_rcS_edges_std.

Theorem C02_rcS_edges_ia : forall g : sits, wf g ->
  (forall u v x, In (u, v, x) (gedges g) ->
     e_std (fst x) = if Z.abs (e_G (fst x) - e_H (fst x)) <? 2 then 0 else e_G (fst x) - e_H (fst x)) ->
  forall u v y,
  adj (get_rc_S K_default false false g) u v = Some y <->
  exists x, adj g u v = Some x /\ (2 <= Z.abs (e_G (fst x) - e_H (fst x)) \/ is_hh_g ish_S g u v = true) /\ y = out_edge x.
Proof. exact rcS_edges_ia. Qed.
Print Assumptions C02_rcS_edges_ia.

Theorem C02_construct_S_consistent : forall o G H,
  (o_ia o = false -> forall u v x, In (u, v, x) (gedges (emb_S (its_construct_S o G H))) -> e_std (fst x) = e_G (fst x) - e_H (fst x)) /\
  (o_ia o = true -> forall u v x, In (u, v, x) (gedges (emb_S (its_construct_S o G H))) ->
     e_std (fst x) = if Z.abs (e_G (fst x) - e_H (fst x)) <? 2 then 0 else e_G (fst x) - e_H (fst x)).
Proof. exact construct_S_consistent. Qed.
Print Assumptions C02_construct_S_consistent.

(** 43. The renumbering clause at the level of the REACTION (the pair of molecule graphs): renumbering the atoms of both sides by an
        injective f renumbers the centre and every context (every n_knn) of the ITS that ITSConstruction builds, for every option value,
        with scalar (store=False) and with pair (store=True) labels.  (C01_equivariant_opts composed with theorems 4, 39, 31.) *)
Theorem C02_reaction_renumbering : forall f : N -> N, (forall a b, f a = f b -> a = b) -> forall (o : copts) (G H : mgraph),
  get_rc (its_construct_o o (relabel f G) (relabel f H)) = relabel f (get_rc (its_construct_o o G H)) /\
  (forall k : Z, extract_k_z (its_construct_o o (relabel f G) (relabel f H)) k = relabel f (extract_k_z (its_construct_o o G H) k)) /\
  (forall K d m, wf G -> wf H ->
     get_rc_S K d m (emb_S (its_construct_S o (relabel f G) (relabel f H))) = relabel f (get_rc_S K d m (emb_S (its_construct_S o G H)))).
Proof. exact reaction_renumbering. Qed.
Print Assumptions C02_reaction_renumbering.

(** 44. get_rc commutes with every map of label VALUES that commutes with the attribute selection and keeps "is a hydrogen" and
        "charge changes" (lock-step simulation of the generic get_rc_g, of which get_rc_x is an instance); instance: renumbering the
        atom_map LABELS — with theorem 18: renumbering node ids and atom_map labels together renumbers the centre (what renumbering
        the atom maps of a reaction does to its ITS). *)
Theorem C02_rcx_label_map : forall (h : xnode -> xnode) K d m (g : xits),
  (forall a, h (sel_attr K a) = sel_attr K (h a)) -> (forall a, h (sel_attr_hh K a) = sel_attr_hh K (h a)) ->
  (forall a, match x_el (h a) with Some e => N.eqb e EL_H | None => false end = match x_el a with Some e => N.eqb e EL_H | None => false end) ->
  (forall a, charge_changed (h a) = charge_changed a) ->
  gmapn h (get_rc_x K d m g) = get_rc_x K d m (gmapn h g).
Proof. exact rcx_label_map. Qed.
Print Assumptions C02_rcx_label_map.

Theorem C02_rcx_full_renumbering : forall f : N -> N, (forall a b, f a = f b -> a = b) -> forall (fz : Z -> Z) K d m (g : xits),
  get_rc_x K d m (relabel f (gmapn (map_amap fz) g)) = relabel f (gmapn (map_amap fz) (get_rc_x K d m g)).
Proof. exact rcx_full_renumbering. Qed.
Print Assumptions C02_rcx_full_renumbering.

(** 45. Two facts about contexts, generic in the node and bond types: (a) inside the radius-k context every atom keeps its distance
        (<= k) to the start atoms, so every atom of a context is reached from the centre by at most k bonds INSIDE the context — no
        part of a context is cut off from its centre; (b) radii add up: the radius-(j+k) ball is the radius-k ball around the
        radius-j ball. *)
Theorem C02_ball_distances_preserved : forall (A B : Type) (g : lgraph A B), wf g -> forall S : list N,
  (forall s, In s S -> In s (node_ids g)) -> forall (k j : nat) (n : N), (j <= k)%nat ->
  (dist_le_g (ball_sub g S k) S j n <-> dist_le_g g S j n).
Proof. exact (@C02_Ball.ball_distances_preserved). Qed.
Print Assumptions C02_ball_distances_preserved.

Theorem C02_ball_connected_to_seeds : forall (A B : Type) (g : lgraph A B), wf g -> forall S : list N,
  (forall s, In s S -> In s (node_ids g)) -> forall (k : nat) (n : N),
  In n (node_ids (ball_sub g S k)) -> dist_le_g (ball_sub g S k) S k n.
Proof. exact (@C02_Ball.ball_connected_to_seeds). Qed.
Print Assumptions C02_ball_connected_to_seeds.

Theorem C02_ball_radii_add : forall (A B : Type) (g : lgraph A B) (S : list N) (j k : nat) (n : N),
  dist_le_g g S (j + k) n <-> dist_le_g g (knn_g g S j) k n.
Proof. exact (@C02_Ball.ball_radii_add). Qed.
Print Assumptions C02_ball_radii_add.

(** 46. A reaction centre (a rule graph) is a fixed point of every context extraction: for every radius k the radius-k context of
        get_rc g is get_rc g again — for full-label ITS graphs and for every label shape. *)
Theorem C02_ctx_of_centre : forall (g : its) (k : nat), wf g -> geq (extract_k (get_rc g) k) (get_rc g).
Proof. exact ctx_of_centre. Qed.
Print Assumptions C02_ctx_of_centre.

Theorem C02_ctxS_of_centre : forall (g : sits) (k : nat), wf g ->
  geq (extract_k_S (get_rc_S K_default false false g) k) (get_rc_S K_default false false g).
Proof. exact ctxS_of_centre. Qed.
Print Assumptions C02_ctxS_of_centre.

Theorem C02_unequal_of_context : forall (g : its) (k : nat), wf g -> (1 <= k)%nat ->
  forall n, In n (unequal_nodes (extract_k g k)) <-> In n (unequal_nodes g).
Proof. exact unequal_of_context. Qed.
Print Assumptions C02_unequal_of_context.

(** 47. Spectator edits (the count-changing / rewiring in-place edits of the history populations): get_rc depends only on the atoms and
        on the sub-list of relevant bonds (changed, or between two hydrogens).  Same atoms + same relevant bonds => the SAME centre;
        adding or deleting a bond that is unchanged and not H-H, anywhere in the edge list, never changes the centre (the contexts may
        change: witness in proof/C02_Spectator.v). *)
Theorem C02_rc_same_relevant : forall g g' : its, gnodes g' = gnodes g ->
  filter (fun e : N * N * iedge => changed (snd e) || is_hh g (fst (fst e)) (snd (fst e))) (gedges g') =
  filter (fun e : N * N * iedge => changed (snd e) || is_hh g (fst (fst e)) (snd (fst e))) (gedges g) ->
  get_rc g' = get_rc g.
Proof. exact rc_same_relevant. Qed.
Print Assumptions C02_rc_same_relevant.

Theorem C02_rc_add_spectator_bond : forall (g : its) l1 l2 u v x, gedges g = l1 ++ l2 -> changed x = false -> is_hh g u v = false ->
  get_rc (LG (gnodes g) (l1 ++ (u, v, x) :: l2)) = get_rc g.
Proof. exact rc_add_spectator_bond. Qed.
Print Assumptions C02_rc_add_spectator_bond.

Theorem C02_rc_del_spectator_bond : forall (g : its) l1 l2 u v x, gedges g = l1 ++ (u, v, x) :: l2 -> changed x = false -> is_hh g u v = false ->
  get_rc (LG (gnodes g) (l1 ++ l2)) = get_rc g.
Proof. exact rc_del_spectator_bond. Qed.
Print Assumptions C02_rc_del_spectator_bond.

Theorem C02_rc_same_centre_labels : forall g g' : its, gedges g' = gedges g -> (forall n, is_h g' n = is_h g n) ->
  (forall a b x, In (a, b, x) (gedges g) -> changed x || is_hh g a b = true -> label g' a = label g a /\ label g' b = label g b) ->
  get_rc g' = get_rc g.
Proof. exact rc_same_centre_labels. Qed.
Print Assumptions C02_rc_same_centre_labels.

(** 48. The property text as ONE statement: theorems 1-6 (and 24) assembled for an ITS graph whose standard_order is the order
        difference.  (For the other option settings, label shapes, wrappers and helpers see theorems 7-47.) *)
Theorem C02_property_statement : forall g : its, wf g -> std_consistent g ->
  (* a bond is in the centre iff its order differs between the two sides, H-H bonds additionally always *)
  (forall u v e, adj (get_rc g) u v = Some e <->
                 adj g u v = Some e /\ (e_G e <> e_H e \/ (is_h g u = true /\ is_h g v = true))) /\
  (* exactly the atoms incident to those bonds, with their ITS labels *)
  (forall n b, label (get_rc g) n = Some b <->
               (exists a, label g n = Some a /\ b = rc_attr a) /\ (exists v e, adj (get_rc g) n v = Some e)) /\
  (* the centre of the centre *)
  geq (get_rc (get_rc g)) (get_rc g) /\
  (* renumbering *)
  (forall f : N -> N, (forall a b, f a = f b -> a = b) ->
     get_rc (relabel f g) = relabel f (get_rc g) /\ forall k, extract_k (relabel f g) k = relabel f (extract_k g k)) /\
  (* the radius-k context is exactly the atoms within k bonds of the centre (induced subgraph) *)
  (forall k, (1 <= k)%nat ->
     (forall n, In n (node_ids (extract_k g k)) <-> dist_le g (node_ids (get_rc g)) k n) /\
     (forall n a, label (extract_k g k) n = Some a <-> label g n = Some a /\ dist_le g (node_ids (get_rc g)) k n) /\
     (forall u v e, adj (extract_k g k) u v = Some e <->
                    adj g u v = Some e /\ dist_le g (node_ids (get_rc g)) k u /\ dist_le g (node_ids (get_rc g)) k v)) /\
  (* centre = context(0) within context(1) within context(2) ... within the ITS *)
  (forall k k', (k <= k')%nat ->
     extract_k g 0 = get_rc g /\
     (forall n, In n (node_ids (extract_k g k)) -> In n (node_ids (extract_k g k'))) /\
     (forall u v e, adj (extract_k g k) u v = Some e -> adj (extract_k g k') u v = Some e) /\
     (forall n, In n (node_ids (extract_k g k')) -> In n (node_ids g)) /\
     (forall u v e, adj (extract_k g k') u v = Some e -> adj g u v = Some e)).
Proof.
  exact (fun g W Hs => conj (rc_edges g W Hs) (conj (rc_nodes g W) (conj (rc_idem g W)
           (conj (fun f Hinj => conj (rc_equivariant f Hinj g) (ctx_equivariant f Hinj g)) (conj (ctx_spec g W) (ctx_chain g W)))))).
Qed.
Print Assumptions C02_property_statement.

(** 49. Theorem 47 for every element_key / keep_mtg (disconnected = False) and for every label shape: the centre depends only on the
        atoms and on the sub-list of relevant bonds (included, or between two hydrogens).  Under disconnected = True a spectator bond
        between two centre atoms IS re-added by _reconnect_rc_edges (witness in proof/C02_Spectator.v). *)
Theorem C02_rcx_same_relevant : forall K m (g g' : xits), gnodes g' = gnodes g ->
  filter (fun e : N * N * xedge => include_x m (snd e) || is_hh_x g (fst (fst e)) (snd (fst e))) (gedges g') =
  filter (fun e : N * N * xedge => include_x m (snd e) || is_hh_x g (fst (fst e)) (snd (fst e))) (gedges g) ->
  get_rc_x K false m g' = get_rc_x K false m g.
Proof. exact rcx_same_relevant. Qed.
Print Assumptions C02_rcx_same_relevant.

Theorem C02_rcS_same_relevant : forall K m (g g' : sits), gnodes g' = gnodes g ->
  filter (fun e : N * N * xedge => include_x m (snd e) || is_hh_g ish_S g (fst (fst e)) (snd (fst e))) (gedges g') =
  filter (fun e : N * N * xedge => include_x m (snd e) || is_hh_g ish_S g (fst (fst e)) (snd (fst e))) (gedges g) ->
  get_rc_S K false m g' = get_rc_S K false m g.
Proof. exact (fun K => rcg_same_relevant snode (selS K) (selS_hh K) ish_S cc_S). Qed.
Print Assumptions C02_rcS_same_relevant.

(** 50. The facade implicit_rule(rsmi, disconnected, balance_its) = get_rc(ITSGraph(r, p, balance_its=...), disconnected=...) on the
        graphs (r, p) of the hydrogen-stripped reaction (importable since /repo fix 28c46fa; compared by the wrap-implicit cases):
        disconnected = False gives the centre stated on the two sides (theorem 20'); disconnected = True adds exactly the atoms whose
        charge differs between the two halves of typesGH and every ITS bond between atoms of the result. *)
Theorem C02_implicit_rule : forall bal (G H : mgraph), wf G -> wf H ->
  (forall u v, (exists y, adj (get_rc_x K_default false false (emb (its_construct_ab false bal G H))) u v = Some y) <->
               (adj G u v <> None \/ adj H u v <> None) /\
               (order_in G u v <> order_in H u v \/
                (is_h (its_construct_ab false bal G H) u = true /\ is_h (its_construct_ab false bal G H) v = true))) /\
  (forall n, In n (node_ids (get_rc_x K_default true false (emb (its_construct_ab false bal G H)))) <->
             In n (node_ids (get_rc_x K_default false false (emb (its_construct_ab false bal G H)))) \/
             (exists a, label (its_construct_ab false bal G H) n = Some a /\ a_ch (i_G a) <> a_ch (i_H a))) /\
  (forall u v e, (exists y, adj (get_rc_x K_default true false (emb (its_construct_ab false bal G H))) u v = Some y /\ fst y = e) <->
                 adj (its_construct_ab false bal G H) u v = Some e /\
                 In u (node_ids (get_rc_x K_default true false (emb (its_construct_ab false bal G H)))) /\
                 In v (node_ids (get_rc_x K_default true false (emb (its_construct_ab false bal G H))))).
Proof. exact implicit_rule_spec. Qed.
Print Assumptions C02_implicit_rule.

(** 51. The hypothesis of theorem 1 is needed: on a hand-made ITS whose bond has orders (1, 2) but standard_order 0 the
        orders differ and the bond is not in the centre.  The result of longest_radius_extension is empty iff there is no centre atom. *)
Theorem C02_rc_edges_inconsistent_refuted :
  wf ex_incons /\ ~ std_consistent ex_incons /\ ~ ia_consistent ex_incons /\
  (exists e, adj ex_incons 1%N 2%N = Some e /\ e_G e <> e_H e) /\ adj (get_rc ex_incons) 1%N 2%N = None.
Proof. exact rc_edges_inconsistent_refuted. Qed.
Print Assumptions C02_rc_edges_inconsistent_refuted.

Theorem C02_lre_nil_iff : forall (g : its) (rcn : list N), lre g rcn = [] <-> rcn = [].
Proof. exact lre_nil_iff. Qed.
Print Assumptions C02_lre_nil_iff.

(** 52. The property text as ONE statement for ITS graphs of ANY label shape (pair labels of ITSConstruction.construct, absent labels)
        whose standard_order is the order difference: theorems 42, 41, 31, 40, 28 assembled (the chain as bonded pairs: the centre's
        bonds carry is_mtg = data.get("is_mtg", False)). *)
Theorem C02_property_statement_S : forall g : sits, wf g ->
  (forall u v x, In (u, v, x) (gedges g) -> e_std (fst x) = e_G (fst x) - e_H (fst x)) ->
  (forall u v y, adj (get_rc_S K_default false false g) u v = Some y <->
                 exists x, adj g u v = Some x /\ (e_G (fst x) <> e_H (fst x) \/ is_hh_g ish_S g u v = true) /\ y = out_edge x) /\
  (forall n b, label (get_rc_S K_default false false g) n = Some b <->
               exists a, label g n = Some a /\
                 (((exists v x, adj g n v = Some x /\ include_x false x = true) /\ b = selS K_default a) \/ (~ (exists v x, adj g n v = Some x /\ include_x false x = true) /\ (exists v x, adj g n v = Some x /\ is_hh_g ish_S g n v = true) /\ b = selS_hh K_default a))) /\
  geq (get_rc_S K_default false false (get_rc_S K_default false false g)) (get_rc_S K_default false false g) /\
  (forall f : N -> N, (forall a b, f a = f b -> a = b) ->
     get_rc_S K_default false false (relabel f g) = relabel f (get_rc_S K_default false false g) /\
     forall k : Z, extract_k_S_z (relabel f g) k = relabel f (extract_k_S_z g k)) /\
  (forall k, (1 <= k)%nat ->
     let Bk := dist_le_g g (node_ids (get_rc_S K_default false false g)) k in
     (forall n, In n (node_ids (extract_k_S g k)) <-> Bk n) /\
     (forall n a, label (extract_k_S g k) n = Some a <-> label g n = Some a /\ Bk n) /\
     (forall u v e, adj (extract_k_S g k) u v = Some e <-> adj g u v = Some e /\ Bk u /\ Bk v)) /\
  (forall k k', (k <= k')%nat ->
     extract_k_S g 0 = get_rc_S K_default false false g /\
     (forall n, In n (node_ids (extract_k_S g k)) -> In n (node_ids (extract_k_S g k'))) /\
     (forall u v, adj (extract_k_S g k) u v <> None -> adj (extract_k_S g k') u v <> None) /\
     (forall n, In n (node_ids (extract_k_S g k')) -> In n (node_ids g)) /\
     (forall u v, adj (extract_k_S g k') u v <> None -> adj g u v <> None)).
Proof.
  exact (fun g W Hs => conj (rcS_edges_std g W Hs) (conj (rcS_nodes_conn K_default false g W)
           (conj (rcS_idem K_default false false g eq_refl eq_refl W)
           (conj (fun f Hinj => conj (rcS_equivariant f Hinj K_default false false g W) (fun k => ctxS_z_equivariant f Hinj g k W))
           (conj (ctxS_spec g W)
                 (fun k k' Hk => match ctxS_chain g W k k' Hk with
                                 | conj C0 (conj C1 (conj C2 (conj _ (conj C4 C5)))) => conj C0 (conj C1 (conj C2 (conj C4 C5))) end)))))).
Qed.
Print Assumptions C02_property_statement_S.

(** 53. Contexts saturate: from radius |atoms| + 1 on nothing is added any more, for any start atoms of the graph and any node / bond
        type; on an ITS: extract_k with a huge radius (the "radius 50" degenerate cases) is extract_k with radius |atoms| + 1. *)
Theorem C02_ball_saturates : forall (A B : Type) (g : lgraph A B), wf g -> forall (seeds : list N) (j : nat),
  (forall s, In s seeds -> In s (node_ids g)) ->
  knn_g g seeds (S (length (node_ids g)) + j) = knn_g g seeds (S (length (node_ids g))) /\
  ball_sub g seeds (S (length (node_ids g)) + j) = ball_sub g seeds (S (length (node_ids g))).
Proof. exact (@ball_saturates). Qed.
Print Assumptions C02_ball_saturates.

Theorem C02_extract_k_saturates : forall (g : its) (j : nat), wf g ->
  extract_k g (S (length (node_ids g)) + j) = extract_k g (S (length (node_ids g))).
Proof. exact extract_k_saturates. Qed.
Print Assumptions C02_extract_k_saturates.

Theorem C02_saturated_is_component : forall (A B : Type) (g : lgraph A B) (seeds : list N), wf g ->
  (forall s, In s seeds -> In s (node_ids g)) ->
  forall n, In n (knn_g g seeds (S (length (node_ids g)))) <-> exists s m, In s seeds /\ walk_g g s n m.
Proof. exact (@saturated_is_component_walk). Qed.
Print Assumptions C02_saturated_is_component.

Theorem C02_extract_k_S_saturates : forall (g : sits) (j : nat), wf g ->
  extract_k_S g (S (length (node_ids g)) + j) = extract_k_S g (S (length (node_ids g))).
Proof. exact extract_k_S_saturates. Qed.
Print Assumptions C02_extract_k_S_saturates.

(** 54. The maximum-radius context (n_knn = -1) contains the whole extension path of longest_radius_extension: the path has r atoms,
        starts in a centre atom and every step is a bond, so its i-th atom lies within i < r bonds of the centre. *)
Theorem C02_lre_path_in_context : forall g : its, wf g ->
  forall x, In x (lre g (node_ids (get_rc g))) -> In x (node_ids (extract_k_z g (-1))).
Proof. exact lre_path_in_context. Qed.
Print Assumptions C02_lre_path_in_context.

Theorem C02_max_radius_contains_radius_1 : forall g : its, wf g ->
  forall n, In n (node_ids (extract_k g 1)) -> In n (node_ids (extract_k_z g (-1))).
Proof. exact max_radius_contains_radius_1. Qed.
Print Assumptions C02_max_radius_contains_radius_1.

(** 55. Theorem 10 and theorem 54 for every label shape: what disconnected = True adds to the centre of a pair-/absent-label graph;
        the maximum-radius context of such a graph contains its extension path (through the skeleton). *)
Theorem C02_rcS_disconnected : forall K m (g : sits), wf g ->
  (forall n, In n (node_ids (get_rc_S K true m g)) <->
             In n (node_ids (get_rc_S K false m g)) \/ (exists a, label g n = Some a /\ cc_S a = true)) /\
  (forall u v e, (exists y, adj (get_rc_S K true m g) u v = Some y /\ fst y = e) <->
                 (exists x, adj g u v = Some x /\ fst x = e) /\
                 In u (node_ids (get_rc_S K true m g)) /\ In v (node_ids (get_rc_S K true m g))).
Proof. exact (fun K => rcg_disconnected (selS K) (selS_hh K) ish_S cc_S). Qed.
Print Assumptions C02_rcS_disconnected.

Theorem C02_lre_path_in_context_S : forall g : sits, wf g ->
  forall x, In x (lre (skel g) (node_ids (get_rc_S K_default false false g))) -> In x (node_ids (extract_k_S_z g (-1))).
Proof. exact lre_path_in_context_S. Qed.
Print Assumptions C02_lre_path_in_context_S.
