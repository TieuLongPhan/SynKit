(** C12 -- maximum common subgraph results are valid and of maximum size.
    Statements only; every proof is an [exact] of lemmas of proof/C12_*.v (or of [iff_refl] where the statement writes a
    definition out).

    The functions are those of model/C12_Model.v which the correspondence evaluates on every run
    ([run_matcher] -> [find_common_subgraph] -> [prune_graph], [prepare_orientation], [search_subgraphs],
     [get_mappings] in all three directions; [run_mtg] -> [find_common_subgraph_mtg] -> [search_subgraphs]).
    The induced sub-graph isomorphisms of one k-subset are enumerated in the model by the verified enumerator
    [Mono.monos] (lib/Mono.v, induced := true); that networkx VF2 returns the same SET is the monitored premise
    (TRUSTED_BASE; compared on every case through the ordered result lists).
    Graphs: node ids pairwise distinct ([NoDup (node_ids g)], guaranteed by networkx); adjacency is symmetric by
    construction ([LGraph.adj]). *)
From Coq Require Import List NArith ZArith Bool Arith Permutation Sorted.
From SK Require Import lib.LGraph model.C12_Model model.C12_Trace model.C12_Check model.C12_CheckMtg model.C12_State proof.C12_Search proof.C12_Proof proof.C12_Prune proof.C12_Enum proof.C12_Sorted proof.C12_Component proof.C12_Mol proof.C12_State proof.C12_Trace proof.C12_LastSize proof.C12_StateRaw proof.C12_MtgRaw.
Import ListNotations.

(** ** 0. the specification: a common induced sub-graph mapping, written out.
    [m] lists (node of the first graph, node of the second graph) pairs; it is a function, injective, maps nodes to
    nodes with matching selected labels, and between any two mapped atoms a bond is present on both sides with
    matching order, or absent on both sides. *)
Theorem C12_common_induced_meaning :
  forall (nm : option nattr -> option nattr -> bool) (em : eattr -> eattr -> bool) (ga gb : graph) (m : mapping),
  common_induced nm em ga gb m <->
  NoDup (map fst m) /\ NoDup (map snd m) /\
  (forall p h, In (p, h) m ->
     In p (node_ids ga) /\ In h (node_ids gb) /\ nm (label gb h) (label ga p) = true) /\
  (forall p h p' h', In (p, h) m -> In (p', h') m -> p <> p' ->
     match LGraph.adj ga p p', LGraph.adj gb h h' with
     | Some b, Some b' => em b' b = true
     | None, None => True
     | _, _ => False
     end).
Proof. exact (fun nm em ga gb m => iff_refl _). Qed.
Print Assumptions C12_common_induced_meaning.

(** ** 1. every returned mapping is valid -- both modes, all three directions, after the orientation swap and
    wildcard pruning: a G1->G2 mapping is a common induced mapping of (G1, G2), a G2->G1 mapping one of (G2, G1),
    a pattern->host mapping one of the oriented pair; no returned mapping is empty. *)
Theorem C12_valid :
  forall (defs : list N) (prune : bool) (wc : N) (g1 g2 : graph),
  NoDup (node_ids g1) -> NoDup (node_ids g2) ->
  forall (mcs : bool) (m : mapping),
  (In m (get_mappings G1toG2 (find_common_subgraph defs prune wc g1 g2 mcs)) ->
     common_induced (node_match defs) edge_match (prune_graph prune wc g1) (prune_graph prune wc g2) m /\ 1 <= length m) /\
  (In m (get_mappings G2toG1 (find_common_subgraph defs prune wc g1 g2 mcs)) ->
     common_induced (node_match defs) edge_match (prune_graph prune wc g2) (prune_graph prune wc g1) m /\ 1 <= length m) /\
  (In m (get_mappings PatternToHost (find_common_subgraph defs prune wc g1 g2 mcs)) ->
     if r_pattern_is_g1 (find_common_subgraph defs prune wc g1 g2 mcs)
     then common_induced (node_match defs) edge_match (prune_graph prune wc g1) (prune_graph prune wc g2) m
     else common_induced (node_match defs) edge_match (prune_graph prune wc g2) (prune_graph prune wc g1) m).
Proof. exact fcs_valid. Qed.
Print Assumptions C12_valid.

(** ** 2. maximum mode: all returned mappings have the size [last_size]; NO common induced mapping of the two graphs
    is larger (soundness + maximality, whichever graph is larger); every common induced mapping of that size is
    returned (up to the order in which its pairs are listed); the result is empty iff last_size = 0.
    Stated for the G1->G2 answer against (G1, G2) and for the G2->G1 answer against (G2, G1). *)
Theorem C12_maximum :
  forall (defs : list N) (prune : bool) (wc : N) (g1 g2 : graph),
  NoDup (node_ids g1) -> NoDup (node_ids g2) ->
  let g1u := prune_graph prune wc g1 in
  let g2u := prune_graph prune wc g2 in
  let r := find_common_subgraph defs prune wc g1 g2 true in
  ((forall m, In m (get_mappings G1toG2 r) ->
      common_induced (node_match defs) edge_match g1u g2u m /\ length m = r_last r) /\
   (forall m, common_induced (node_match defs) edge_match g1u g2u m -> length m <= r_last r) /\
   (forall m, common_induced (node_match defs) edge_match g1u g2u m -> length m = r_last r -> 1 <= r_last r ->
      exists m', In m' (get_mappings G1toG2 r) /\ Permutation m m') /\
   (get_mappings G1toG2 r = [] <-> r_last r = 0)) /\
  ((forall m, In m (get_mappings G2toG1 r) ->
      common_induced (node_match defs) edge_match g2u g1u m /\ length m = r_last r) /\
   (forall m, common_induced (node_match defs) edge_match g2u g1u m -> length m <= r_last r) /\
   (forall m, common_induced (node_match defs) edge_match g2u g1u m -> length m = r_last r -> 1 <= r_last r ->
      exists m', In m' (get_mappings G2toG1 r) /\ Permutation m m') /\
   (get_mappings G2toG1 r = [] <-> r_last r = 0)).
Proof. exact fcs_maximum. Qed.
Print Assumptions C12_maximum.

(** all-sizes mode: the result is exactly (up to the order of the pairs) the set of non-empty common induced mappings *)
Theorem C12_all_sizes :
  forall (defs : list N) (prune : bool) (wc : N) (g1 g2 : graph),
  NoDup (node_ids g1) -> NoDup (node_ids g2) ->
  let g1u := prune_graph prune wc g1 in
  let g2u := prune_graph prune wc g2 in
  let r := find_common_subgraph defs prune wc g1 g2 false in
  ((forall m, In m (get_mappings G1toG2 r) -> common_induced (node_match defs) edge_match g1u g2u m /\ 1 <= length m) /\
   (forall m, common_induced (node_match defs) edge_match g1u g2u m -> 1 <= length m ->
      exists m', In m' (get_mappings G1toG2 r) /\ Permutation m m')) /\
  ((forall m, In m (get_mappings G2toG1 r) -> common_induced (node_match defs) edge_match g2u g1u m /\ 1 <= length m) /\
   (forall m, common_induced (node_match defs) edge_match g2u g1u m -> 1 <= length m ->
      exists m', In m' (get_mappings G2toG1 r) /\ Permutation m m')).
Proof. exact fcs_all. Qed.
Print Assumptions C12_all_sizes.

(** a result exists iff some atom of G1 matches some atom of G2 on the selected labels *)
Theorem C12_nonempty_iff :
  forall (defs : list N) (prune : bool) (wc : N) (g1 g2 : graph),
  NoDup (node_ids g1) -> NoDup (node_ids g2) ->
  forall mcs : bool,
  get_mappings G1toG2 (find_common_subgraph defs prune wc g1 g2 mcs) <> [] <->
  exists p h, In p (node_ids (prune_graph prune wc g1)) /\ In h (node_ids (prune_graph prune wc g2)) /\
              node_match defs (label (prune_graph prune wc g2) h) (label (prune_graph prune wc g1) p) = true.
Proof. exact fcs_nonempty_iff. Qed.
Print Assumptions C12_nonempty_iff.

(** ** 3. asking for the mapping in either direction gives mutually inverse maps: the two answers are position-wise
    inverse lists of pairs, inversion swaps the components of every pair and is an involution -- for every result
    record, whichever graph was the pattern. *)
Theorem C12_directions_inverse :
  forall r : result,
  get_mappings G2toG1 r = map invert_mapping (get_mappings G1toG2 r) /\
  get_mappings G1toG2 r = map invert_mapping (get_mappings G2toG1 r).
Proof. exact directions_inverse. Qed.
Print Assumptions C12_directions_inverse.

Theorem C12_invert_swaps : forall (a b : N) (m : mapping), In (a, b) (invert_mapping m) <-> In (b, a) m.
Proof. exact in_invert. Qed.
Print Assumptions C12_invert_swaps.

Theorem C12_invert_involutive : forall m : mapping, invert_mapping (invert_mapping m) = m.
Proof. exact invert_involutive. Qed.
Print Assumptions C12_invert_involutive.

(** orientation (first graph larger): with graphs of different size, exchanging the arguments runs the same search
    and exchanges the answers of the two direction requests *)
Theorem C12_orientation_swap :
  forall (defs : list N) (prune : bool) (wc : N) (g1 g2 : graph) (mcs : bool),
  n_nodes (prune_graph prune wc g1) <> n_nodes (prune_graph prune wc g2) ->
  get_mappings G1toG2 (find_common_subgraph defs prune wc g1 g2 mcs) =
  get_mappings G2toG1 (find_common_subgraph defs prune wc g2 g1 mcs) /\
  r_last (find_common_subgraph defs prune wc g1 g2 mcs) = r_last (find_common_subgraph defs prune wc g2 g1 mcs) /\
  r_pattern_is_g1 (find_common_subgraph defs prune wc g1 g2 mcs) =
  negb (r_pattern_is_g1 (find_common_subgraph defs prune wc g2 g1 mcs)).
Proof. exact orientation_swap. Qed.
Print Assumptions C12_orientation_swap.

(** ** 4. the search itself, for arbitrary node / edge matchers (this is what both copies of the matcher share):
    the level-by-level loop with early exit against the verified enumerator.  One level = Mono.monos over the
    k-subsets of the pattern: sound and complete for the common induced mappings of size k. *)
Theorem C12_level_exact :
  forall (nm : option nattr -> option nattr -> bool) (em : eattr -> eattr -> bool) (pattern host : graph),
  NoDup (node_ids pattern) ->
  (forall k m, In m (level nm em pattern host k) -> common_induced nm em pattern host m /\ length m = k) /\
  (forall m, common_induced nm em pattern host m ->
     exists m', In m' (level nm em pattern host (length m)) /\ Permutation m m').
Proof. exact (fun nm em pattern host H => conj (level_sound nm em pattern host H) (level_complete nm em pattern host H)). Qed.
Print Assumptions C12_level_exact.

Theorem C12_search_maximum :
  forall (nm : option nattr -> option nattr -> bool) (em : eattr -> eattr -> bool) (pattern host : graph),
  NoDup (node_ids pattern) ->
  forall (maps : list mapping) (last tried : nat),
  search_subgraphs nm em pattern host true = (maps, last, tried) ->
  (forall m, In m maps -> common_induced nm em pattern host m /\ length m = last) /\
  (forall m, common_induced nm em pattern host m -> length m <= last) /\
  (forall m, common_induced nm em pattern host m -> length m = last -> 1 <= last ->
     exists m', In m' maps /\ Permutation m m') /\
  (maps = [] <-> last = 0).
Proof. exact search_mcs_spec. Qed.
Print Assumptions C12_search_maximum.

Theorem C12_search_all_sizes :
  forall (nm : option nattr -> option nattr -> bool) (em : eattr -> eattr -> bool) (pattern host : graph),
  NoDup (node_ids pattern) ->
  forall (maps : list mapping) (last tried : nat),
  search_subgraphs nm em pattern host false = (maps, last, tried) ->
  (forall m, In m maps -> common_induced nm em pattern host m /\ 1 <= length m) /\
  (forall m, common_induced nm em pattern host m -> 1 <= length m -> exists m', In m' maps /\ Permutation m m').
Proof. exact search_all_spec. Qed.
Print Assumptions C12_search_all_sizes.

(** ** 5. the MTG copy (G1 is always the pattern; its edge matcher rejects a missing order) *)
Theorem C12_mtg :
  forall (defs : list N) (g1 g2 : graph), NoDup (node_ids g1) -> NoDup (node_ids g2) ->
  let maps := fst (fst (find_common_subgraph_mtg defs g1 g2 true)) in
  let last := snd (fst (find_common_subgraph_mtg defs g1 g2 true)) in
  let maps_all := fst (fst (find_common_subgraph_mtg defs g1 g2 false)) in
  ((forall m, In m maps -> common_induced (node_match defs) edge_match_mtg g1 g2 m /\ length m = last) /\
   (forall m, common_induced (node_match defs) edge_match_mtg g1 g2 m -> length m <= last) /\
   (forall m, common_induced (node_match defs) edge_match_mtg g1 g2 m -> length m = last -> 1 <= last ->
      exists m', In m' maps /\ Permutation m m') /\
   (maps = [] <-> last = 0)) /\
  ((forall m, In m maps_all -> common_induced (node_match defs) edge_match_mtg g1 g2 m /\ 1 <= length m) /\
   (forall m, common_induced (node_match defs) edge_match_mtg g1 g2 m -> 1 <= length m ->
      exists m', In m' maps_all /\ Permutation m m')).
Proof. exact mtg_spec. Qed.
Print Assumptions C12_mtg.

(** ** 6. wildcard pruning (prune_wc=True): the theorems above speak about the pruned graphs; a common induced mapping
    of the PRUNED graphs is exactly a common induced mapping of the ORIGINAL graphs that touches no wildcard atom
    ([wc_node wc g p]: the element attribute of node p equals the wildcard element) ... *)
Theorem C12_prune_meaning :
  forall (nm : option nattr -> option nattr -> bool) (em : eattr -> eattr -> bool) (wc : N) (g1 g2 : graph) (m : mapping),
  NoDup (node_ids g1) -> NoDup (node_ids g2) ->
  (common_induced nm em (prune_graph true wc g1) (prune_graph true wc g2) m <->
   common_induced nm em g1 g2 m /\
   forall p h, In (p, h) m ->
     match label g1 p with Some a => is_wc wc a | None => false end = false /\
     match label g2 h with Some a => is_wc wc a | None => false end = false).
Proof. exact prune_ci_iff. Qed.
Print Assumptions C12_prune_meaning.

(** ... so with pruning on, every returned mapping is valid for the graphs the caller passed and maps no wildcard *)
Theorem C12_valid_original :
  forall (defs : list N) (wc : N) (g1 g2 : graph) (mcs : bool) (m : mapping),
  NoDup (node_ids g1) -> NoDup (node_ids g2) ->
  In m (get_mappings G1toG2 (find_common_subgraph defs true wc g1 g2 mcs)) ->
  common_induced (node_match defs) edge_match g1 g2 m /\
  forall p h, In (p, h) m ->
    match label g1 p with Some a => is_wc wc a | None => false end = false /\
    match label g2 h with Some a => is_wc wc a | None => false end = false.
Proof. exact fcs_valid_original. Qed.
Print Assumptions C12_valid_original.

(** ** 7. orientation in general (also graphs of EQUAL size, where the two calls use different patterns): exchanging the
    arguments gives the same maximum size and, up to the order of the pairs inside a mapping, the same answers *)
Theorem C12_orientation_general :
  forall (defs : list N) (prune : bool) (wc : N) (g1 g2 : graph),
  NoDup (node_ids g1) -> NoDup (node_ids g2) ->
  r_last (find_common_subgraph defs prune wc g1 g2 true) = r_last (find_common_subgraph defs prune wc g2 g1 true) /\
  forall m, In m (get_mappings G1toG2 (find_common_subgraph defs prune wc g1 g2 true)) ->
            exists m', In m' (get_mappings G2toG1 (find_common_subgraph defs prune wc g2 g1 true)) /\ Permutation m m'.
Proof. exact orientation_general. Qed.
Print Assumptions C12_orientation_general.

(** ** 8. what the matchers compare, for the usual configuration of one node attribute (default d) and one edge
    attribute: labels are equal after substituting the default for a missing value; bond orders are equal, a missing
    order matching only a missing order -- in BOTH copies (the defect repaired by /repo 24a0150: the MTG copy matched a
    missing order with nothing, not even a missing one, so C-C against C-C without `order` had maximum 1;
    witness corpus/regress/C12/mtg_missing_order.json) *)
Theorem C12_matchers_meaning :
  forall (d : N) (e e' : option N) (a b : option N) (x y : option Z),
  (node_match [d] (Some (e, [a])) (Some (e', [b])) = true <->
     match a with Some v => v | None => d end = match b with Some v => v | None => d end) /\
  (edge_match [x] [y] = true <-> x = y) /\
  (edge_match_mtg [x] [y] = true <-> x = y).
Proof. exact matchers_single. Qed.
Print Assumptions C12_matchers_meaning.

(** ** 9. the premise about networkx VF2, explicit.  [search_subgraphs_with enum] is _search_subgraphs with an ARBITRARY
    enumerator in the place of GraphMatcher(host, pattern.subgraph(nodes)).subgraph_isomorphisms_iter(); the model's
    search is the instance with the verified enumerator ([C12_model_is_instance]).  The search depends on the enumerator
    only through the SET of results per k-subset: any [vf2] that returns, for every k-subset of the pattern's nodes,
    the same set as the verified enumerator (any order, repetitions allowed) gives the same set of mappings, the same
    last_size and the same number of matcher objects -- so theorems 1-7 hold for the search run with it. *)
Theorem C12_model_is_instance :
  forall (nm : option nattr -> option nattr -> bool) (em : eattr -> eattr -> bool) (pattern host : graph) (mcs : bool),
  search_subgraphs nm em pattern host mcs = search_subgraphs_with (sub_isos nm em pattern host) pattern host mcs.
Proof. exact search_subgraphs_is_with. Qed.
Print Assumptions C12_model_is_instance.

Theorem C12_vf2_premise :
  forall (nm : option nattr -> option nattr -> bool) (em : eattr -> eattr -> bool) (pattern host : graph) (mcs : bool)
         (vf2 : list N -> list mapping),
  (forall k c, In c (combs (node_ids pattern) k) -> forall m, In m (vf2 c) <-> In m (sub_isos nm em pattern host c)) ->
  (forall m, In m (fst (fst (search_subgraphs_with vf2 pattern host mcs))) <->
             In m (fst (fst (search_subgraphs nm em pattern host mcs)))) /\
  snd (fst (search_subgraphs_with vf2 pattern host mcs)) = snd (fst (search_subgraphs nm em pattern host mcs)) /\
  snd (search_subgraphs_with vf2 pattern host mcs) = snd (search_subgraphs nm em pattern host mcs).
Proof. exact vf2_premise. Qed.
Print Assumptions C12_vf2_premise.

(** ** 10. no mapping is returned twice (the [seen] set), in any mode and direction *)
Theorem C12_no_duplicates :
  forall (defs : list N) (prune : bool) (wc : N) (g1 g2 : graph) (mcs : bool) (d : direction),
  NoDup (get_mappings d (find_common_subgraph defs prune wc g1 g2 mcs)).
Proof. exact get_mappings_nodup. Qed.
Print Assumptions C12_no_duplicates.

(** ** 11. the order of the returned list: sorted by the key (-len(d), tuple(sorted(d.items()))) -- larger mappings first,
    equal sizes by the lexicographic order of their sorted item tuples ([result_ltb], model/C12_Model.v): no element is
    followed by a strictly smaller one.  (Direction requests invert every mapping in place and keep the positions.) *)
Theorem C12_sorted :
  forall (defs : list N) (prune : bool) (wc : N) (g1 g2 : graph) (mcs : bool),
  Sorted (fun a b : mapping => result_ltb b a = false)
         (get_mappings PatternToHost (find_common_subgraph defs prune wc g1 g2 mcs)).
Proof. exact fcs_sorted. Qed.
Print Assumptions C12_sorted.

Theorem C12_result_order_meaning :
  forall a b : mapping,
  result_ltb a b = true <-> length b < length a \/ (length a = length b /\ items_ltb a b = true).
Proof. exact result_ltb_meaning. Qed.
Print Assumptions C12_result_order_meaning.

(** ** 12. component-wise mode, find_rc_mapping(side='its', component=True) (model [find_rc_component]: connected
    components in node order, stable sort by size, largest with largest, first mapping of every sorted local result,
    combined by dict.update).  On graphs whose edges join their own nodes: the call returns exactly one mapping,
    reported G1 -> G2; it is a common induced mapping of the two (pruned) graphs -- injective, label-preserving,
    presence and order of every bond between mapped atoms preserved both ways, also ACROSS components -- and its
    inverse is one for (G2, G1). *)
Theorem C12_component_valid :
  forall (defs : list N) (prune : bool) (wc : N) (g1 g2 : graph) (mcs : bool),
  NoDup (node_ids g1) -> NoDup (node_ids g2) ->
  (forall a b x, In (a, b, x) (gedges g1) -> In a (node_ids g1) /\ In b (node_ids g1)) ->
  (forall a b x, In (a, b, x) (gedges g2) -> In a (node_ids g2) /\ In b (node_ids g2)) ->
  (forall m, In m (get_mappings G1toG2 (find_rc_component defs prune wc g1 g2 mcs)) ->
     common_induced (node_match defs) edge_match (prune_graph prune wc g1) (prune_graph prune wc g2) m /\
     length m = r_last (find_rc_component defs prune wc g1 g2 mcs)) /\
  (forall m, In m (get_mappings G2toG1 (find_rc_component defs prune wc g1 g2 mcs)) ->
     common_induced (node_match defs) edge_match (prune_graph prune wc g2) (prune_graph prune wc g1) m) /\
  length (get_mappings G1toG2 (find_rc_component defs prune wc g1 g2 mcs)) = 1.
Proof. exact component_valid. Qed.
Print Assumptions C12_component_valid.

(** the component list ([components], the model of nx.connected_components by the saturation closure of lib/Reach.v):
    every component consists of nodes and is closed under adjacency, different components are disjoint, every node
    lies in one *)
Theorem C12_components_partition :
  forall g : graph,
  (forall a b x, In (a, b, x) (gedges g) -> In a (node_ids g) /\ In b (node_ids g)) ->
  (forall c, In c (components g) -> incl c (node_ids g) /\
                                   forall x v e, In x c -> LGraph.adj g x v = Some e -> In v c) /\
  (forall i j, i < j -> j < length (components g) ->
               forall x, In x (nth i (components g) []) -> ~ In x (nth j (components g) [])) /\
  (forall u, In u (node_ids g) -> exists c, In c (components g) /\ In u c).
Proof. exact components_partition. Qed.
Print Assumptions C12_components_partition.

(** ** 13. prune_automorphisms=True.  WHICH mapping represents a host node set is VF2's choice (first in its enumeration
    order) and is not modelled; orientation, last_size, subsets tried and the SET of host node sets that keep a
    representative are (observable [run_matcher_auto], compared on every such case): each host node set occurs once, and
    they are exactly the sorted host node sets of the mappings of the unpruned result, to which theorems 1-2 apply. *)
Theorem C12_prune_auto_host_sets :
  forall maps : list mapping,
  NoDup (host_sets maps) /\
  (forall hs, In hs (host_sets maps) <-> exists m, In m maps /\ host_set m = hs) /\
  (forall m, Permutation (host_set m) (map snd m)).
Proof. exact host_sets_spec. Qed.
Print Assumptions C12_prune_auto_host_sets.

(** ** 14. molecule-level mode, find_common_subgraph(mcs_mol=True) (model [find_mcs_mol_pairs]: components of both graphs in
    node order, stable sort by size, every component of G1 greedily paired with the first not yet used component of G2 of
    the same size that passes the isomorphism test).  WHICH isomorphism maps a component onto its partner is VF2's choice
    (not modelled; judged by the oracle).  Proved: the pairs join components of the two (pruned) graphs of equal size that
    pass the test; different pairs have disjoint first and disjoint second components; and for EVERY choice of valid
    mappings inside the matched pairs the combined mapping is a common induced mapping of the two graphs. *)
Theorem C12_mcs_mol_valid :
  forall (defs : list N) (prune : bool) (wc : N) (g1 g2 : graph),
  NoDup (node_ids g1) -> NoDup (node_ids g2) ->
  (forall a b x, In (a, b, x) (gedges g1) -> In a (node_ids g1) /\ In b (node_ids g1)) ->
  (forall a b x, In (a, b, x) (gedges g2) -> In a (node_ids g2) /\ In b (node_ids g2)) ->
  let g1u := prune_graph prune wc g1 in
  let g2u := prune_graph prune wc g2 in
  let ps := fst (find_mcs_mol_pairs defs prune wc g1 g2) in
  (forall c1 c2, In (c1, c2) ps ->
     In c1 (components g1u) /\ In c2 (components g2u) /\ length c2 = length c1 /\
     comp_iso (node_match defs) edge_match g1u g2u c1 c2 = true) /\
  (forall i j, i < j -> j < length ps -> forall x,
     (In x (nth i (map fst ps) []) -> ~ In x (nth j (map fst ps) [])) /\
     (In x (nth i (map snd ps) []) -> ~ In x (nth j (map snd ps) []))) /\
  (forall ms, Forall2 (fun p m => common_induced (node_match defs) edge_match
                                    (induced_sub g1u (fst p)) (induced_sub g2u (snd p)) m) ps ms ->
              common_induced (node_match defs) edge_match g1u g2u (concat ms)).
Proof. exact mcs_mol_valid. Qed.
Print Assumptions C12_mcs_mol_valid.

(** the isomorphism test of a pair of components ([comp_iso], the model of GraphMatcher(sub1, sub2).is_isomorphic() for equal
    sizes) holds iff some common induced mapping of the two induced copies covers all of c1 *)
Theorem C12_comp_iso_meaning :
  forall (nm : option nattr -> option nattr -> bool) (em : eattr -> eattr -> bool) (g1 g2 : graph) (c1 c2 : list N),
  NoDup c1 -> incl c1 (node_ids g1) -> incl c2 (node_ids g2) ->
  (comp_iso nm em g1 g2 c1 c2 = true <->
   exists m, common_induced nm em (induced_sub g1 c1) (induced_sub g2 c2) m /\ Permutation (map fst m) c1).
Proof. exact comp_iso_spec. Qed.
Print Assumptions C12_comp_iso_meaning.

(** ** 15. prune_automorphisms=True, the returned mappings themselves.  VF2's choice -- for every host node set the
    mapping it enumerates first -- is an explicit PARAMETER [choices] of the model ([apply_choices], [run_matcher_auto_with];
    the harness obtains it from networkx alone).  For EVERY accepted parameter: the kept mappings are mappings of the unpruned
    result chosen from the parameter, valid for the oriented pair of (pruned) graphs, pairwise different in their host node
    sets, sorted; and in maximum mode they all have size last_size and every maximum common induced mapping has its host
    node set represented. *)
Theorem C12_prune_auto_choices :
  forall (defs : list N) (prune : bool) (wc : N) (g1 g2 : graph) (mcs : bool) (choices kept : list mapping),
  NoDup (node_ids g1) -> NoDup (node_ids g2) ->
  let r := find_common_subgraph defs prune wc g1 g2 mcs in
  let ga := if r_pattern_is_g1 r then prune_graph prune wc g1 else prune_graph prune wc g2 in
  let gb := if r_pattern_is_g1 r then prune_graph prune wc g2 else prune_graph prune wc g1 in
  apply_choices (r_maps r) choices = Some kept ->
  (forall k, In k kept -> common_induced (node_match defs) edge_match ga gb k /\ In k (r_maps r) /\
                          exists c, In c choices /\ k = sort_items c) /\
  NoDup (map host_set kept) /\ Sorted (fun a b : mapping => result_ltb b a = false) kept /\
  (mcs = true -> (forall k, In k kept -> length k = r_last r) /\
     forall m, common_induced (node_match defs) edge_match ga gb m -> length m = r_last r -> 1 <= r_last r ->
               exists k, In k kept /\ host_set k = host_set m).
Proof. exact prune_auto_choices_valid. Qed.
Print Assumptions C12_prune_auto_choices.

(** ** 16. the matcher OBJECT: constructor, raw attribute dictionaries, the cache as a state machine, the ITS facade
    (model/C12_State.v; the correspondence runs every history of the Matcher copy through [run_history] -> [h_play] -> [m_step]
    -> [m_find] / [m_rc] / [m_get], and the constructor cases through [run_ctor] -> [mk_config]). *)

(** MCSMatcher.__init__: the stored options as a function of the arguments (None = argument omitted): node_attrs defaults to
    ["element"], node_defaults to "*" repeated len(node_attrs) times, edge_attrs to ["order"] when omitted OR empty; ValueError
    exactly when explicit defaults have another length than the names *)
Theorem C12_ctor_normalised :
  forall a : ctor_args,
  match mk_config a with
  | Some c =>
      c_names c = match a_node_attrs a with Some l => l | None => [K_ELEMENT] end /\
      length (c_defs c) = length (c_names c) /\
      c_defs c = match a_node_defaults a with
                 | Some l => l
                 | None => repeat V_STAR (length match a_node_attrs a with Some l => l | None => [K_ELEMENT] end)
                 end /\
      c_enames c <> [] /\
      c_enames c = match a_edge_attrs a with Some (x :: r) => x :: r | _ => [K_ORDER] end /\
      c_prune c = a_prune_wc a /\ c_auto c = a_prune_auto a /\ c_wc c = a_wildcard a /\ c_ekey c = a_element_key a
  | None => exists l, a_node_defaults a = Some l /\
                      length l <> length match a_node_attrs a with Some l => l | None => [K_ELEMENT] end
  end.
Proof. exact mk_config_spec. Qed.
Print Assumptions C12_ctor_normalised.

(** the two matchers as the code evaluates them on the RAW attribute dictionaries (data.get(attr, default) per configured
    name; _edge_match with float() and its != fall-back for values float() rejects) are the matchers of C12_Model.v on the
    attribute selection [project_node] / [project_edge] -- so every theorem above speaks about the raw graphs *)
Theorem C12_raw_matchers :
  (forall (names defs : list N) (h p : rnattr), length defs = length names ->
     node_match_raw names defs h p =
     attrs_match defs (map (fun k => LGraph.assoc k h) names) (map (fun k => LGraph.assoc k p) names)) /\
  (forall (names : list N) (h p : reattr),
     edge_match_raw names h p =
     edge_match (map (fun k => option_map evalue_code (LGraph.assoc k h)) names)
                (map (fun k => option_map evalue_code (LGraph.assoc k p)) names)) /\
  (forall a b : evalue, Z.eqb (evalue_code a) (evalue_code b) = evalue_eqb a b).
Proof. exact (conj (fun names defs h p => node_match_raw_project names defs h p) (conj edge_match_raw_project evalue_code_eqb)). Qed.
Print Assumptions C12_raw_matchers.

(** ... in particular the validity clause read directly on the graphs the caller passes *)
Theorem C12_raw_meaning :
  forall (cfg : config) (ga gb : rgraph) (m : mapping), length (c_defs cfg) = length (c_names cfg) ->
  common_induced (node_match (c_defs cfg)) edge_match (project cfg ga) (project cfg gb) m <->
  NoDup (map fst m) /\ NoDup (map snd m) /\
  (forall p h, In (p, h) m ->
     exists a b, label ga p = Some a /\ label gb h = Some b /\ node_match_raw (c_names cfg) (c_defs cfg) b a = true) /\
  (forall p h p' h', In (p, h) m -> In (p', h') m -> p <> p' ->
     match LGraph.adj ga p p', LGraph.adj gb h h' with
     | Some b, Some b' => edge_match_raw (c_enames cfg) b' b = true
     | None, None => True
     | _, _ => False
     end).
Proof. exact project_ci_iff. Qed.
Print Assumptions C12_raw_meaning.

(** history independence: a search call never looks at the cache -- its answer and the cache it leaves are those of a fresh
    object, whatever calls (other pairs, other modes, failed calls, reads) the object served before; reads never change the
    cache *)
Theorem C12_history_independent :
  forall (cfg : config) (st : mstate) (ops : list mop) (o : mop) (rds : list mop),
  is_read o = false -> forallb is_read rds = true ->
  m_run cfg st (ops ++ o :: rds) = fst (m_step cfg s_init o) /\
  snd (m_step cfg (m_run cfg st ops) o) = snd (m_step cfg s_init o).
Proof. exact (fun cfg st ops o rds Ho Hr => conj (history_last_search cfg st ops o rds Ho Hr) (history_answers_fresh cfg st ops o Ho)). Qed.
Print Assumptions C12_history_independent.

(** before any search, and after a facade call with an unknown side (the ValueError is raised AFTER the reset): nothing is
    stored and every direction string -- also an unknown one -- is answered with the empty list *)
Theorem C12_state_unknown :
  (forall d : dir, m_get s_init d = Some []) /\
  (forall (cfg : config) (st : mstate) (x : rc_input) (mcs comp : bool),
     m_step cfg st (MRc x SBad mcs comp) = (s_init, SK.lib.Tok.L (SK.lib.Tok.I (-1)%Z :: m_views s_init))).
Proof. exact state_unknown. Qed.
Print Assumptions C12_state_unknown.

(** in every cache an object can reach: the two direction requests are position-wise mutually inverse, the pattern->host
    request equals one of them, and an unknown direction is refused exactly when a search has run *)
Theorem C12_reads_inverse :
  forall (cfg : config) (ops : list mop),
  let st := m_run cfg s_init ops in
  exists l12 l21 lp, m_get st D12 = Some l12 /\ m_get st D21 = Some l21 /\ m_get st DP2H = Some lp /\
    l21 = map invert_mapping l12 /\ l12 = map invert_mapping l21 /\ (lp = l12 \/ lp = l21) /\
    (m_get st DBad = None <-> s_flag st <> None).
Proof. exact reads_inverse. Qed.
Print Assumptions C12_reads_inverse.

(** THE PROPERTY OVER HISTORIES: whatever happened to the object before, after find_common_subgraph(G1, G2, mcs) and any
    number of reads the three direction requests answer with mappings that are valid for (G1, G2) as selected and pruned by this
    object's options; the two directions are mutually inverse; in maximum mode all sizes equal last_size, no common induced
    mapping is larger and every one of that size is returned; in all-sizes mode every non-empty common induced mapping is returned *)
Theorem C12_history_valid :
  forall (cfg : config) (st : mstate) (ops : list mop) (g1 g2 : rgraph) (mcs : bool) (rds : list mop),
  NoDup (node_ids g1) -> NoDup (node_ids g2) -> forallb is_read rds = true ->
  let nm := node_match (c_defs cfg) in
  let pr := fun g => prune_graph (c_prune cfg) (c_wc cfg) (project cfg g) in
  let stf := m_run cfg st (ops ++ MFind g1 g2 mcs :: rds) in
  exists l12 l21 lp, m_get stf D12 = Some l12 /\ m_get stf D21 = Some l21 /\ m_get stf DP2H = Some lp /\ m_get stf DBad = None /\
    l21 = map invert_mapping l12 /\ l12 = map invert_mapping l21 /\ (lp = l12 \/ lp = l21) /\
    (forall m, In m l12 -> common_induced nm edge_match (pr g1) (pr g2) m /\ (1 <= length m)%nat) /\
    (forall m, In m l21 -> common_induced nm edge_match (pr g2) (pr g1) m /\ (1 <= length m)%nat) /\
    (mcs = true ->
       (forall m, In m l12 -> length m = s_last stf) /\
       (forall m, common_induced nm edge_match (pr g1) (pr g2) m -> (length m <= s_last stf)%nat) /\
       (forall m, common_induced nm edge_match (pr g1) (pr g2) m -> length m = s_last stf -> (1 <= s_last stf)%nat ->
          exists m', In m' l12 /\ Permutation m m')) /\
    (mcs = false ->
       forall m, common_induced nm edge_match (pr g1) (pr g2) m -> (1 <= length m)%nat -> exists m', In m' l12 /\ Permutation m m').
Proof. exact history_find_valid. Qed.
Print Assumptions C12_history_valid.

(** the ITS facade: with component=False it is find_common_subgraph on the sides it selects (r: right/right, l: left/left,
    op: right of rc1 / left of rc2, its: the arguments themselves) *)
Theorem C12_facade_sides :
  forall (cfg : config) (st : mstate) (x : rc_input) (sd : side) (mcs : bool),
  match sd with
  | SR => m_step cfg st (MRc x sd mcs false) = m_step cfg st (MFind (rc_r1 x) (rc_r2 x) mcs)
  | SL => m_step cfg st (MRc x sd mcs false) = m_step cfg st (MFind (rc_l1 x) (rc_l2 x) mcs)
  | SOp => m_step cfg st (MRc x sd mcs false) = m_step cfg st (MFind (rc_r1 x) (rc_l2 x) mcs)
  | SIts => m_step cfg st (MRc x sd mcs false) = m_step cfg st (MFind (rc_1 x) (rc_2 x) mcs)
  | SBad => fst (m_step cfg st (MRc x sd mcs false)) = s_init
  end.
Proof. exact facade_sides. Qed.
Print Assumptions C12_facade_sides.

(** component mode after any history: exactly one stored mapping, reported G1 -> G2 (flag true), valid for the selected sides
    also across components; the other direction is its inverse *)
Theorem C12_history_component_valid :
  forall (cfg : config) (st : mstate) (ops : list mop) (x : rc_input) (sd : side) (mcs : bool) (ga gb : rgraph) (rds : list mop),
  pick_sides x sd = Some (ga, gb) ->
  NoDup (node_ids ga) -> NoDup (node_ids gb) -> wfe (project cfg ga) -> wfe (project cfg gb) ->
  forallb is_read rds = true ->
  let nm := node_match (c_defs cfg) in
  let pr := fun g => prune_graph (c_prune cfg) (c_wc cfg) (project cfg g) in
  let stf := m_run cfg st (ops ++ MRc x sd mcs true :: rds) in
  exists m, m_get stf D12 = Some [m] /\ m_get stf D21 = Some [invert_mapping m] /\ m_get stf DP2H = Some [m] /\
    s_flag stf = Some true /\ s_last stf = length m /\
    common_induced nm edge_match (pr ga) (pr gb) m /\ common_induced nm edge_match (pr gb) (pr ga) (invert_mapping m).
Proof. exact history_component_valid. Qed.
Print Assumptions C12_history_component_valid.

(** ** 17. the MTG copy as an object ([run_history_mtg] -> [t_play] -> [t_step]; constructor [mk_config_mtg]).
    Constructor: no length test -- generic_node_match zips names, defaults and comparators, so only the first
    min(len(names), len(defaults)) names are compared; its edge matcher on raw dictionaries (both values missing -> True, float()
    of both, an exception -> ==; /repo 24a0150) is [edge_match_mtg] on the selection [project_edge_mtg] *)
Theorem C12_mtg_object :
  (forall a : mtg_args, length (c_defs (mk_config_mtg a)) = length (c_names (mk_config_mtg a))) /\
  (forall (names defs : list N) (h p : rnattr),
     node_match_raw names defs h p =
     node_match_raw (firstn (Nat.min (length names) (length defs)) names)
                    (firstn (Nat.min (length names) (length defs)) defs) h p) /\
  (forall (cfg : config) (k : N) (h p : reattr), c_enames cfg = [k] ->
     edge_match_mtg (project_edge_mtg cfg h) (project_edge_mtg cfg p) = edge_match_mtg_raw k h p).
Proof. exact (conj mk_config_mtg_lengths (conj node_match_raw_firstn edge_match_mtg_project)). Qed.
Print Assumptions C12_mtg_object.

(** history independence of the MTG object: a search leaves the cache (and gives the answer) of a fresh object *)
Theorem C12_mtg_history_independent :
  forall (cfg : config) (st : tstate) (ops : list top) (o : top) (rds : list top),
  t_is_read o = false -> forallb t_is_read rds = true ->
  t_run cfg st (ops ++ o :: rds) = fst (t_step cfg t_init o) /\
  snd (t_step cfg (t_run cfg st ops) o) = snd (t_step cfg t_init o).
Proof. exact mtg_history_last_search. Qed.
Print Assumptions C12_mtg_history_independent.

(** the property over histories of the MTG object (first argument = pattern, no pruning) *)
Theorem C12_mtg_history_valid :
  forall (cfg : config) (st : tstate) (ops : list top) (g1 g2 : rgraph) (mcs : bool) (rds : list top),
  NoDup (node_ids g1) -> NoDup (node_ids g2) -> forallb t_is_read rds = true ->
  let stf := t_run cfg st (ops ++ TFind g1 g2 mcs :: rds) in
  let G1 := project_mtg cfg g1 in let G2 := project_mtg cfg g2 in
  (forall m, In m (t_maps stf) -> common_induced (node_match (c_defs cfg)) edge_match_mtg G1 G2 m /\ (1 <= length m)%nat) /\
  (mcs = true ->
     (forall m, In m (t_maps stf) -> length m = t_last stf) /\
     (forall m, common_induced (node_match (c_defs cfg)) edge_match_mtg G1 G2 m -> (length m <= t_last stf)%nat) /\
     (forall m, common_induced (node_match (c_defs cfg)) edge_match_mtg G1 G2 m -> length m = t_last stf -> (1 <= t_last stf)%nat ->
        exists m', In m' (t_maps stf) /\ Permutation m m')) /\
  (mcs = false ->
     forall m, common_induced (node_match (c_defs cfg)) edge_match_mtg G1 G2 m -> (1 <= length m)%nat ->
        exists m', In m' (t_maps stf) /\ Permutation m m').
Proof. exact mtg_history_valid. Qed.
Print Assumptions C12_mtg_history_valid.

(** ** 18. intermediate values of the search: the trace of GraphMatcher objects ([search_trace]; compared with the
    instrumented implementation on every plain search call: [run_matcher_tr], [run_mtg_tr], [find_tok], [t_find_tok]).
    One entry per GraphMatcher object the search counts; every entry is a k-subset of the pattern's nodes (k between 1 and
    min(|pattern|, |host|), subsets as sub-lists in node order = itertools.combinations) with the number of results of the
    verified enumerator for it; in maximum mode the trace stops with the first level that yields an isomorphism (all
    earlier entries have count 0). *)
Theorem C12_search_trace :
  forall (nm : option nattr -> option nattr -> bool) (em : eattr -> eattr -> bool) (pattern host : graph),
  (forall mcs, length (search_trace nm em pattern host mcs) = snd (search_subgraphs nm em pattern host mcs)) /\
  (forall mcs nodes c, In (nodes, c) (search_trace nm em pattern host mcs) ->
     exists k, 1 <= k <= Nat.min (n_nodes pattern) (n_nodes host) /\ In nodes (combs (node_ids pattern) k) /\
               c = length (sub_isos nm em pattern host nodes)) /\
  (forall k, let t := trace_loop nm em true pattern host k in
     ((forall j, 1 <= j <= k -> level nm em pattern host j = []) /\ (forall p, In p t -> snd p = 0)) \/
     (exists b, 1 <= b <= k /\ level nm em pattern host b <> [] /\
                (forall j, b < j <= k -> level nm em pattern host j = []) /\
                exists pre, t = pre ++ level_trace nm em pattern host b /\ forall p, In p pre -> snd p = 0)).
Proof.
  exact (fun nm em pattern host => conj (search_trace_length nm em pattern host)
           (conj (search_trace_entries nm em pattern host) (search_trace_early_exit nm em pattern host))).
Qed.
Print Assumptions C12_search_trace.

(** ** 19. [last_size] in ALL-SIZES mode (the property text does not speak about it): 0 with an empty result, otherwise the size of the SMALLEST returned mapping -- [best_size] is overwritten on the way
    down -- and some returned mapping has exactly that size.  (The docstring of the property says "size of the largest
    mapping"; [Example_last_size]: C-C=O against O=C returns sizes [2; 1; 1; 1] and last_size 1.) *)
Theorem C12_last_size_all_sizes :
  forall (nm : option nattr -> option nattr -> bool) (em : eattr -> eattr -> bool) (pattern host : graph),
  NoDup (node_ids pattern) ->
  forall (maps : list mapping) (last tried : nat),
  search_subgraphs nm em pattern host false = (maps, last, tried) ->
  (maps = [] /\ last = 0) \/
  (1 <= last /\ (exists m, In m maps /\ length m = last) /\ forall m, In m maps -> last <= length m).
Proof. exact last_size_all_sizes. Qed.
Print Assumptions C12_last_size_all_sizes.

(** ** 20. prune_automorphisms=True inside histories ([MFindAuto]: VF2's first mapping per host node set is an input,
    validated by [apply_choices]): after any history, with an accepted parameter the cache holds exactly the chosen
    representatives, with the size and orientation flag of the unpruned search -- so C12_prune_auto_choices (validity, pairwise
    different host node sets, sortedness, completeness up to host node sets) and C12_reads_inverse apply to every read *)
Theorem C12_history_prune_auto :
  forall (cfg : config) (st : mstate) (ops : list mop) (g1 g2 : rgraph) (mcs : bool) (choices : list mapping) (rds : list mop)
         (kept : list mapping),
  forallb is_read rds = true ->
  apply_choices (r_maps (find_common_subgraph (c_defs cfg) (c_prune cfg) (c_wc cfg) (project cfg g1) (project cfg g2) mcs)) choices = Some kept ->
  m_run cfg st (ops ++ MFindAuto g1 g2 mcs choices :: rds) =
  {| s_maps := kept;
     s_last := r_last (find_common_subgraph (c_defs cfg) (c_prune cfg) (c_wc cfg) (project cfg g1) (project cfg g2) mcs);
     s_flag := Some (r_pattern_is_g1 (find_common_subgraph (c_defs cfg) (c_prune cfg) (c_wc cfg) (project cfg g1) (project cfg g2) mcs)) |}.
Proof. exact history_auto. Qed.
Print Assumptions C12_history_prune_auto.

(** ** 21. THE PROPERTY OVER HISTORIES ON THE CALLER'S GRAPHS.  [raw_valid cfg ga gb m]: [m] is a function, injective,
    maps atoms of ga to atoms of gb whose configured attributes agree after the defaults (data.get(name, default)), with every
    bond between mapped atoms present on both sides with matching configured bond attributes (float() equality, or == for values
    float() rejects; missing matches only missing) or absent on both sides -- and, with prune_wc, maps no atom whose
    element_key attribute equals wildcard_element.  For an object built by the constructor, whatever calls it served before:
    after find_common_subgraph(G1, G2, mcs) and any reads, every G1->G2 answer is valid for (G1, G2), every G2->G1 answer for
    (G2, G1), the two lists are position-wise inverse; maximum mode: all sizes equal last_size and no valid mapping is larger;
    all-sizes mode: every non-empty valid mapping is returned. *)
Theorem C12_raw_valid_meaning :
  forall (cfg : config) (ga gb : rgraph) (m : mapping),
  raw_valid cfg ga gb m <->
  (NoDup (map fst m) /\ NoDup (map snd m) /\
   (forall p h, In (p, h) m ->
      exists a b, label ga p = Some a /\ label gb h = Some b /\ node_match_raw (c_names cfg) (c_defs cfg) b a = true) /\
   (forall p h p' h', In (p, h) m -> In (p', h') m -> p <> p' ->
      match LGraph.adj ga p p', LGraph.adj gb h h' with
      | Some b, Some b' => edge_match_raw (c_enames cfg) b' b = true
      | None, None => True
      | _, _ => False
      end)) /\
  (c_prune cfg = true -> forall p h, In (p, h) m -> raw_wildcard cfg ga p = false /\ raw_wildcard cfg gb h = false).
Proof. exact (fun cfg ga gb m => iff_refl _). Qed.
Print Assumptions C12_raw_valid_meaning.

Theorem C12_history_valid_raw :
  forall (a : ctor_args) (cfg : config) (st : mstate) (ops : list mop) (g1 g2 : rgraph) (mcs : bool) (rds : list mop),
  mk_config a = Some cfg ->
  NoDup (node_ids g1) -> NoDup (node_ids g2) -> forallb is_read rds = true ->
  let stf := m_run cfg st (ops ++ MFind g1 g2 mcs :: rds) in
  exists l12 l21, m_get stf D12 = Some l12 /\ m_get stf D21 = Some l21 /\
    l21 = map invert_mapping l12 /\ l12 = map invert_mapping l21 /\
    (forall m, In m l12 -> raw_valid cfg g1 g2 m /\ 1 <= length m) /\
    (forall m, In m l21 -> raw_valid cfg g2 g1 m /\ 1 <= length m) /\
    (mcs = true -> (forall m, In m l12 -> length m = s_last stf) /\
                   (forall m, raw_valid cfg g1 g2 m -> length m <= s_last stf)) /\
    (mcs = false -> forall m, raw_valid cfg g1 g2 m -> 1 <= length m -> exists m', In m' l12 /\ Permutation m m').
Proof.
  exact (fun a cfg st ops g1 g2 mcs rds Ea =>
           history_valid_raw a cfg st ops (MFind g1 g2 mcs) g1 g2 mcs rds Ea (fun _ => eq_refl)).
Qed.
Print Assumptions C12_history_valid_raw.

(** ** 22. a decision procedure for the validity clause, and mcs_mol=True with VF2's choice as an input.
    [ci_check] (model/C12_Check.v) decides [common_induced].  [find_mcs_mol_with]: the greedy component pairing of the model
    ([find_mcs_mol_pairs]) plus the isomorphisms inside the pairs as a PARAMETER [choice] (obtained by the harness from networkx
    alone), accepted iff its part on every selected component c1 passes [ci_check] on the two induced copies and covers c1, and it
    has no other pair.  Every accepted parameter yields ONE combined mapping, reported G1 -> G2, that is a common induced mapping
    of the (pruned) graphs -- injective and bond-preserving also across components -- whose inverse is one for (G2, G1); after any
    history the cache is that result ([MFindMol]). *)
Theorem C12_ci_check_decides :
  forall (nm : option nattr -> option nattr -> bool) (em : eattr -> eattr -> bool) (ga gb : graph) (m : mapping),
  ci_check nm em ga gb m = true <-> common_induced nm em ga gb m.
Proof. exact ci_check_spec. Qed.
Print Assumptions C12_ci_check_decides.

Theorem C12_mcs_mol_choice_valid :
  forall (defs : list N) (prune : bool) (wc : N) (g1 g2 : graph) (choice : mapping) (r : result),
  NoDup (node_ids g1) -> NoDup (node_ids g2) ->
  (forall a b x, In (a, b, x) (gedges g1) -> In a (node_ids g1) /\ In b (node_ids g1)) ->
  (forall a b x, In (a, b, x) (gedges g2) -> In a (node_ids g2) /\ In b (node_ids g2)) ->
  find_mcs_mol_with defs prune wc g1 g2 choice = Some r ->
  exists m, r_maps r = [m] /\ r_last r = length m /\ r_pattern_is_g1 r = true /\
            r_tried r = snd (find_mcs_mol_pairs defs prune wc g1 g2) /\
            (forall ph, In ph m -> In ph choice) /\ length m = length choice /\
            common_induced (node_match defs) edge_match (prune_graph prune wc g1) (prune_graph prune wc g2) m /\
            common_induced (node_match defs) edge_match (prune_graph prune wc g2) (prune_graph prune wc g1) (invert_mapping m).
Proof. exact mol_choice_valid. Qed.
Print Assumptions C12_mcs_mol_choice_valid.

Theorem C12_history_mcs_mol :
  forall (cfg : config) (st : mstate) (ops : list mop) (g1 g2 : rgraph) (choice : mapping) (rds : list mop) (r : result),
  forallb is_read rds = true ->
  find_mcs_mol_with (c_defs cfg) (c_prune cfg) (c_wc cfg) (project cfg g1) (project cfg g2) choice = Some r ->
  m_run cfg st (ops ++ MFindMol g1 g2 choice :: rds) = state_of r.
Proof. exact history_mol. Qed.
Print Assumptions C12_history_mcs_mol.

(** mcs_mol=True through the ITS facade (component=False) is the same call on the sides the facade selects *)
Theorem C12_facade_mcs_mol :
  forall (cfg : config) (st : mstate) (x : rc_input) (sd : side) (choice : mapping) (ga gb : rgraph),
  pick_sides x sd = Some (ga, gb) ->
  m_step cfg st (MRcMol x sd choice) = m_step cfg st (MFindMol ga gb choice).
Proof. exact rc_mol_is_find_mol. Qed.
Print Assumptions C12_facade_mcs_mol.

(** ** 23. the MTG copy on the caller's graphs.  [raw_common_induced_mtg cfg k ga gb m] (written out in the first
    theorem; k = the edge attribute): as for the Matcher copy with ONE edge attribute (a missing value
    matches only a missing value, a value float() rejects only itself; /repo 24a0150).  For an object built by the MTG constructor (zip
    truncation of names / defaults), after any history: stored mappings are valid for (G1, G2) in that sense; maximum mode: all
    of size last_size, no valid mapping larger; all-sizes mode: every non-empty valid mapping returned. *)
Theorem C12_mtg_raw_meaning :
  forall (cfg : config) (k : N) (ga gb : rgraph) (m : mapping),
  length (c_defs cfg) = length (c_names cfg) -> c_enames cfg = [k] ->
  (common_induced (node_match (c_defs cfg)) edge_match_mtg (project_mtg cfg ga) (project_mtg cfg gb) m <->
   NoDup (map fst m) /\ NoDup (map snd m) /\
   (forall p h, In (p, h) m ->
      exists a b, label ga p = Some a /\ label gb h = Some b /\ node_match_raw (c_names cfg) (c_defs cfg) b a = true) /\
   (forall p h p' h', In (p, h) m -> In (p', h') m -> p <> p' ->
      match LGraph.adj ga p p', LGraph.adj gb h h' with
      | Some b, Some b' => edge_match_mtg_raw k b' b = true
      | None, None => True
      | _, _ => False
      end)).
Proof. exact project_mtg_ci_iff. Qed.
Print Assumptions C12_mtg_raw_meaning.

Theorem C12_mtg_history_valid_raw :
  forall (a : mtg_args) (st : tstate) (ops : list top) (g1 g2 : rgraph) (mcs : bool) (rds : list top),
  NoDup (node_ids g1) -> NoDup (node_ids g2) -> forallb t_is_read rds = true ->
  let cfg := mk_config_mtg a in
  let stf := t_run cfg st (ops ++ TFind g1 g2 mcs :: rds) in
  (forall m, In m (t_maps stf) -> raw_common_induced_mtg cfg (ma_edge a) g1 g2 m /\ 1 <= length m) /\
  (mcs = true -> (forall m, In m (t_maps stf) -> length m = t_last stf) /\
                 (forall m, raw_common_induced_mtg cfg (ma_edge a) g1 g2 m -> length m <= t_last stf)) /\
  (mcs = false -> forall m, raw_common_induced_mtg cfg (ma_edge a) g1 g2 m -> 1 <= length m ->
                  exists m', In m' (t_maps stf) /\ Permutation m m').
Proof. exact mtg_history_valid_raw. Qed.
Print Assumptions C12_mtg_history_valid_raw.

(** ** 24. the keyword arguments of the two search entry points as the caller wrote them ([mcall], None = omitted; the
    correspondence encodes every search step of a history this way: [HCallKw] -> [resolve] -> [m_step]): every omitted argument
    takes ITS OWN default whatever else was given -- find_common_subgraph: mcs False, mcs_mol False; find_rc_mapping: side "op",
    mcs True, mcs_mol False, component True -- and the bodies dispatch in their own order: mcs_mol makes find_common_subgraph
    ignore mcs, component mode makes find_rc_mapping ignore mcs_mol. *)
Theorem C12_keyword_defaults :
  forall auto : bool,
  (forall g1 g2 chs ch, resolve auto (CFind g1 g2 {| fk_mcs := None; fk_mol := None |} chs ch) =
                        if auto then MFindAuto g1 g2 false chs else MFind g1 g2 false) /\
  (forall g1 g2 m chs ch, resolve auto (CFind g1 g2 {| fk_mcs := m; fk_mol := Some true |} chs ch) = MFindMol g1 g2 ch) /\
  (forall g1 g2 b chs ch, resolve false (CFind g1 g2 {| fk_mcs := Some b; fk_mol := None |} chs ch) = MFind g1 g2 b) /\
  (forall x ch, resolve auto (CRc x {| rk_side := None; rk_mcs := None; rk_mol := None; rk_component := None |} ch) = MRc x SOp true true) /\
  (forall x sd m ml ch, resolve auto (CRc x {| rk_side := sd; rk_mcs := m; rk_mol := ml; rk_component := None |} ch) =
                        MRc x (dflt SOp sd) (dflt true m) true) /\
  (forall x sd m ch, resolve auto (CRc x {| rk_side := sd; rk_mcs := m; rk_mol := None; rk_component := Some false |} ch) =
                     MRc x (dflt SOp sd) (dflt true m) false) /\
  (forall x sd m ch, resolve auto (CRc x {| rk_side := sd; rk_mcs := m; rk_mol := Some true; rk_component := Some false |} ch) =
                     MRcMol x (dflt SOp sd) ch).
Proof. exact resolve_defaults. Qed.
Print Assumptions C12_keyword_defaults.

(** ** 25. the MTG copy's own mcs_mol mode (synkit/Graph/MTG/mcs_matcher.py _find_mcs_mol):
    the greedy component pairing with the MTG matchers, VF2's isomorphisms as a validated input ([find_mcs_mol_with_mtg],
    [run_mcs_mol_with_mtg]).  Every accepted parameter yields one combined mapping of the size of the parameter that is a common
    induced mapping of the two graphs for the MTG matchers, also across components. *)
Theorem C12_mtg_mcs_mol_choice_valid :
  forall (defs : list N) (g1 g2 : graph) (choice : mapping) (maps : list mapping) (last n : nat),
  NoDup (node_ids g1) -> NoDup (node_ids g2) ->
  (forall a b x, In (a, b, x) (gedges g1) -> In a (node_ids g1) /\ In b (node_ids g1)) ->
  (forall a b x, In (a, b, x) (gedges g2) -> In a (node_ids g2) /\ In b (node_ids g2)) ->
  find_mcs_mol_with_mtg defs g1 g2 choice = Some (maps, last, n) ->
  exists m, maps = [m] /\ last = length m /\ n = snd (find_mcs_mol_pairs_mtg defs g1 g2) /\
            (forall ph, In ph m -> In ph choice) /\ length m = length choice /\
            common_induced (node_match defs) edge_match_mtg g1 g2 m.
Proof. exact mol_choice_valid_mtg. Qed.
Print Assumptions C12_mtg_mcs_mol_choice_valid.

(** the MTG facade forwards mcs_mol: find_rc_mapping(rc1, rc2, mcs_mol=True) is the mcs_mol search on the
    right side of rc1 and the left side of rc2 ([TRcMol], [TFindMol] -> [find_mcs_mol_with_mtg]) *)
Theorem C12_mtg_facade_mcs_mol :
  forall (cfg : config) (st : tstate) (x : rc_input) (choice : mapping),
  t_step cfg st (TRcMol x choice) = t_step cfg st (TFindMol (rc_r1 x) (rc_l2 x) choice).
Proof. exact t_rc_mol_is_find_mol. Qed.
Print Assumptions C12_mtg_facade_mcs_mol.

(** ** 26. the ITS facade on the caller's graphs: find_rc_mapping(rc1, rc2, side, mcs, component=False) after ANY history of
    calls on the object returns mappings that are valid ([raw_valid], section 21) for the two SIDES it selects -- r: right/right,
    l: left/left, op: right of rc1 / left of rc2, its: the arguments themselves --, mutually inverse in the two directions; in
    maximum mode of size last_size with no valid mapping of the sides larger; in all-sizes mode every non-empty one returned *)
Theorem C12_facade_valid_raw :
  forall (a : ctor_args) (cfg : config) (st : mstate) (ops : list mop) (x : rc_input) (sd : side) (mcs : bool)
         (ga gb : rgraph) (rds : list mop),
  mk_config a = Some cfg -> pick_sides x sd = Some (ga, gb) ->
  NoDup (node_ids ga) -> NoDup (node_ids gb) -> forallb is_read rds = true ->
  let stf := m_run cfg st (ops ++ MRc x sd mcs false :: rds) in
  exists l12 l21, m_get stf D12 = Some l12 /\ m_get stf D21 = Some l21 /\
    l21 = map invert_mapping l12 /\ l12 = map invert_mapping l21 /\
    (forall m, In m l12 -> raw_valid cfg ga gb m /\ 1 <= length m) /\
    (forall m, In m l21 -> raw_valid cfg gb ga m /\ 1 <= length m) /\
    (mcs = true -> (forall m, In m l12 -> length m = s_last stf) /\
                   (forall m, raw_valid cfg ga gb m -> length m <= s_last stf)) /\
    (mcs = false -> forall m, raw_valid cfg ga gb m -> 1 <= length m -> exists m', In m' l12 /\ Permutation m m').
Proof.
  exact (fun a cfg st ops x sd mcs ga gb rds Ea Ep =>
           history_valid_raw a cfg st ops (MRc x sd mcs false) ga gb mcs rds Ea (fun st0 => rc_is_find cfg st0 x sd mcs ga gb Ep)).
Qed.
Print Assumptions C12_facade_valid_raw.

(** ** 27. component-wise mode on the caller's graphs: find_rc_mapping(rc1, rc2, side, mcs, component=True) after ANY history
    stores exactly one mapping, reported G1 -> G2 (flag true, last_size = its size), that is valid ([raw_valid]) for the two sides
    the facade selects -- injective and bond-preserving also ACROSS components -- and whose inverse is valid for the exchanged
    sides.  [raw_wfe]: every bond joins two atoms of the graph (guaranteed by networkx). *)
Theorem C12_component_valid_raw :
  forall (a : ctor_args) (cfg : config) (st : mstate) (ops : list mop) (x : rc_input) (sd : side) (mcs : bool)
         (ga gb : rgraph) (rds : list mop),
  mk_config a = Some cfg -> pick_sides x sd = Some (ga, gb) ->
  NoDup (node_ids ga) -> NoDup (node_ids gb) ->
  (forall u v e, In (u, v, e) (gedges ga) -> In u (node_ids ga) /\ In v (node_ids ga)) ->
  (forall u v e, In (u, v, e) (gedges gb) -> In u (node_ids gb) /\ In v (node_ids gb)) ->
  forallb is_read rds = true ->
  let stf := m_run cfg st (ops ++ MRc x sd mcs true :: rds) in
  exists m, m_get stf D12 = Some [m] /\ m_get stf D21 = Some [invert_mapping m] /\ m_get stf DP2H = Some [m] /\
    s_flag stf = Some true /\ s_last stf = length m /\
    raw_valid cfg ga gb m /\ raw_valid cfg gb ga (invert_mapping m).
Proof. exact history_component_valid_raw. Qed.
Print Assumptions C12_component_valid_raw.

(** ** 28. the two VF2-order dependent modes on the caller's graphs.  With an ACCEPTED parameter -- VF2's first mapping per host
    node set under prune_automorphisms ([apply_choices]), VF2's isomorphisms inside the matched component pairs under mcs_mol
    ([find_mcs_mol_with]) -- after ANY history the G1 -> G2 answers are valid ([raw_valid]) for (G1, G2) and the G2 -> G1 answers
    are their position-wise inverses, valid for (G2, G1); under mcs_mol there is exactly one mapping, of the size of the parameter
    and made of its pairs. *)
Theorem C12_history_prune_auto_valid_raw :
  forall (a : ctor_args) (cfg : config) (st : mstate) (ops : list mop) (g1 g2 : rgraph) (mcs : bool) (choices : list mapping)
         (rds : list mop) (kept : list mapping),
  mk_config a = Some cfg -> NoDup (node_ids g1) -> NoDup (node_ids g2) -> forallb is_read rds = true ->
  apply_choices (r_maps (find_common_subgraph (c_defs cfg) (c_prune cfg) (c_wc cfg) (project cfg g1) (project cfg g2) mcs)) choices
    = Some kept ->
  let stf := m_run cfg st (ops ++ MFindAuto g1 g2 mcs choices :: rds) in
  exists l12, m_get stf D12 = Some l12 /\ m_get stf D21 = Some (map invert_mapping l12) /\ length l12 = length kept /\
    (forall m, In m l12 -> raw_valid cfg g1 g2 m) /\
    (forall m, In m (map invert_mapping l12) -> raw_valid cfg g2 g1 m).
Proof. exact history_auto_valid_raw. Qed.
Print Assumptions C12_history_prune_auto_valid_raw.

Theorem C12_history_mcs_mol_valid_raw :
  forall (a : ctor_args) (cfg : config) (st : mstate) (ops : list mop) (g1 g2 : rgraph) (choice : mapping) (rds : list mop)
         (r : result),
  mk_config a = Some cfg -> NoDup (node_ids g1) -> NoDup (node_ids g2) ->
  (forall u v e, In (u, v, e) (gedges g1) -> In u (node_ids g1) /\ In v (node_ids g1)) ->
  (forall u v e, In (u, v, e) (gedges g2) -> In u (node_ids g2) /\ In v (node_ids g2)) ->
  forallb is_read rds = true ->
  find_mcs_mol_with (c_defs cfg) (c_prune cfg) (c_wc cfg) (project cfg g1) (project cfg g2) choice = Some r ->
  let stf := m_run cfg st (ops ++ MFindMol g1 g2 choice :: rds) in
  exists m, m_get stf D12 = Some [m] /\ m_get stf D21 = Some [invert_mapping m] /\ s_flag stf = Some true /\ s_last stf = length m /\
    length m = length choice /\ (forall ph, In ph m -> In ph choice) /\
    raw_valid cfg g1 g2 m /\ raw_valid cfg g2 g1 (invert_mapping m).
Proof. exact history_mol_valid_raw. Qed.
Print Assumptions C12_history_mcs_mol_valid_raw.
