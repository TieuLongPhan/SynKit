(** C10 — changing representation loses nothing: the obligations, written out in full. *)
From Coq Require Import List NArith ZArith String.
From SK Require Import lib.LGraph lib.StrJoin model.C10_Model model.C10_Text model.C10_Rxn model.C10_Dfs proof.C10_Dfs proof.C10_Rxn proof.C10_ImpH proof.C10_HRoundIts proof.C10_GmlEHFull proof.C10_ReindexEHFull proof.C10_Renumber proof.C10_G2MSpec proof.C10_G2MExt proof.C10_IndexIds proof.C10_MolMapped proof.C10_RenumberRec proof.C10_Text proof.C10_Proof proof.C10_Hydrogen proof.C10_Routes proof.C10_GmlWrite proof.C10_HRound proof.C10_Routes2 proof.C10_Reindex proof.C10_MolGraph proof.C10_Smart proof.C10_GmlEH proof.C10_Select proof.C10_MolOk proof.C10_Full proof.C10_Attrs proof.C10_Light proof.C10_ReindexEH.
Import ListNotations.
Local Open Scope Z_scope.

(** GML node labels: for every element symbol in [A-Za-z*]+ and EVERY integer charge, the label written by
    NXToGML (element ++ _charge_to_string charge) is read back by GMLToNX._extract_element_and_charge as
    exactly (element, charge). *)
Theorem C10_label_roundtrip :
  forall (el : str) (c : Z),
    el <> [] -> Forall (fun ch => is_elem_char ch = true) el ->
    extract_element_and_charge (el ++ charge_to_string c) = (el, c).
Proof. exact label_roundtrip_full. Qed.
Print Assumptions C10_label_roundtrip.

(** Hydrogen count, explicit direction: h_to_explicit never changes the total hydrogen count
    (sum of hcount + number of H nodes) — any graph (no well-formedness needed), any node list, both modes. *)
Theorem C10_h_total_explicit :
  forall (g : gr) (nodes : option (list N)) (its : bool),
    total_h (h_to_explicit g nodes its) = total_h g.
Proof. exact h_total_explicit. Qed.
Print Assumptions C10_h_total_explicit.

(** Hydrogen count, implicit direction: on a networkx graph ([gwfb]) in the domain [h_dom] (every explicit H has hcount 0
    and at most one heavy neighbour; H2 / H+ / lone H are inside: they are kept) h_to_implicit keeps the
    total.  Outside the domain the count changes (proof/C10_Hydrogen.v: h_total_implicit_bridge, h_total_implicit_hh).
    ([h_dom] does not depend on the adjacency order networkx iterates: proof/C10_HRound.v h_dom_copy.) *)
Theorem C10_h_total_implicit :
  forall g : gr, gwfb g = true -> h_dom g = true -> total_h (h_to_implicit g) = total_h g.
Proof. exact h_total_implicit_wf. Qed.
Print Assumptions C10_h_total_implicit.

(** Two routes, reaction string vs ITS: after the RDKit half (r, p = rsmi_to_graph(smart); eo = the iteration
    artefact of ITSGraph) smart_to_gml(core=True) and its_to_gml(ITSGraph(r, p), core=True) are the same record. *)
Theorem C10_two_routes_string_its :
  forall (r p : gr) (eo : list (N * N)) (reindex explicit_h : bool),
    smart_to_gml r p eo true reindex explicit_h = its_to_gml (its_construct r p eo) true reindex explicit_h.
Proof. exact two_routes_string_its. Qed.
Print Assumptions C10_two_routes_string_its.

(** ITS -> GML -> ITS (full export of the graph given, ids kept: core=False, reindex=False, explicit_hydrogen=False).
    For every reaction-centre-shaped ITS graph c ([its_ok]: unique ids, one entry per bond, typesGH present with the
    same element in both halves and an element symbol in [A-Za-z*]+, element/charge attributes = reactant half, bond
    orders (before, after) from {absent, 1, 1.5, 2, 3} not both absent, standard_order = before - after) the graph read
    back from the written rule has
      - exactly the same atoms (node ids),
      - at every atom the same element and the same charge on BOTH sides (typesGH), and
      - exactly the same bond dictionary ((before, after) orders and standard_order) at every pair of atoms.
    What changes, stated explicitly by [gml_node]: hcount becomes 0 and aromatic False (GML carries neither), atom_map
    becomes the node id, 'neighbors' is not modelled.  Node and adjacency ORDER are not claimed. *)
Theorem C10_gml_roundtrip :
  forall c : gr, its_ok c = true ->
    let I' := gml_to_its (its_to_gml c false false false) in
    (forall n, has_node I' n = has_node c n) /\
    (forall n a, label c n = Some a ->
       label I' n = Some (gml_node n (tg_el (tG_of a)) (tg_ch (tG_of a)) (tg_ch (tH_of a)))) /\
    (forall u v, adj I' u v = adj c u v).
Proof. exact gml_roundtrip. Qed.
Print Assumptions C10_gml_roundtrip.

(** Hydrogen round trip: for every networkx graph g (unique ids, one entry per bond, end points are nodes: [gwfb])
    without explicit hydrogens, h_to_implicit (h_to_explicit g) has the same nodes in the same order, the same bond
    dictionary at every pair, and at every node the same dictionary except that the reactant-half hcount inside
    typesGH (if the node carries typesGH and had implicit hydrogens) stays lowered ([h_restore]).
    Adjacency ORDER is not claimed (networkx copy() re-inserts edges).  New hydrogens are numbered from max id + 1
    and all disappear again, so no renumbering remains.  Outside the domain (explicit H already present) the graph is
    not restored — those hydrogens are folded too (proof/C10_HRound.v: h_roundtrip_outside); the molecule and the
    count are (C10_h_total_explicit, C10_h_total_implicit). *)
Theorem C10_h_roundtrip :
  forall g : gr, gwfb g = true -> no_H g = true ->
    let g' := h_to_implicit (h_to_explicit g None false) in
    node_ids g' = node_ids g /\
    (forall n a, label g n = Some a -> label g' n = Some (h_restore a)) /\
    (forall u v, adj g' u v = adj g u v).
Proof. exact h_roundtrip. Qed.
Print Assumptions C10_h_roundtrip.

(** ... and for molecule graphs (no typesGH) every node dictionary is restored exactly. *)
Theorem C10_h_roundtrip_mol :
  forall g : gr, gwfb g = true -> no_H g = true -> no_tgh g = true ->
    let g' := h_to_implicit (h_to_explicit g None false) in
    node_ids g' = node_ids g /\ (forall n, label g' n = label g n) /\ (forall u v, adj g' u v = adj g u v).
Proof. exact h_roundtrip_mol. Qed.
Print Assumptions C10_h_roundtrip_mol.

(** Heavy-atom skeleton, explicit direction: for every networkx graph (explicit hydrogens allowed) h_to_explicit keeps
    every old node with element, aromaticity, charge, atom_map untouched and hcount lowered ([h_lowered]), keeps the
    bond dictionary between old nodes, and every new node is a hydrogen (H_att) bonded by a single bond to exactly
    one old node and to nothing else. *)
Theorem C10_h_explicit_skeleton :
  forall g : gr, gwfb g = true ->
    let E := h_to_explicit g None false in
    (forall n a, label g n = Some a -> label E n = Some (h_lowered a)) /\
    (forall u v, In u (node_ids g) -> In v (node_ids g) -> adj E u v = adj g u v) /\
    (forall h, In h (node_ids E) -> ~ In h (node_ids g) ->
       label E h = Some H_att /\
       exists m, In m (node_ids g) /\ forall w, adj E h w = if N.eqb w m then Some e_single else None).
Proof. exact h_explicit_skeleton. Qed.
Print Assumptions C10_h_explicit_skeleton.

(** Two routes, full ITS vs its centre: for every ITS graph I (a networkx graph whose nodes all carry typesGH) whose
    reaction centre get_rc I is in the domain of the round trip ([its_ok]), the rule exported from the FULL graph with
    core=True and the rule exported from the CENTRE (core=True again, as a caller holding only the centre would do)
    read back to the same ITS — same node dictionaries, same bond dictionaries — and that ITS has exactly the atoms and
    the (before, after) bonds of the centre.  (ids kept: reindex=False, explicit_hydrogen=False.  The proof goes through
    get_rc (get_rc I) ~ get_rc I on both lookups: proof/C10_Routes2.v rc_idem_label / rc_idem_adj.)
    SynKit before commit c14a0f1 wrote the whole ITS as context of the full-graph export (known_findings.d/C10.json;
    model: its_to_gml_old). *)
Theorem C10_two_routes_centre :
  forall I : gr, gwfb I = true -> all_tgh I = true -> its_ok (get_rc I) = true ->
    let A := gml_to_its (its_to_gml I true false false) in
    let B := gml_to_its (its_to_gml (get_rc I) true false false) in
    (forall n, label A n = label B n) /\ (forall u v, adj A u v = adj B u v) /\
    (forall n, has_node A n = has_node (get_rc I) n) /\ (forall u v, adj A u v = adj (get_rc I) u v).
Proof. exact two_routes_centre. Qed.
Print Assumptions C10_two_routes_centre.

(** ITS -> GML -> ITS with reindex=True (the default of its_to_gml): the same round trip up to the documented
    renumbering f = old id |-> position (counted from 1) of the node in the node order of the graph.  f is injective on
    the nodes; the graph read back has exactly the nodes f n, at f n the element and both charges of n, and between
    f u and f v exactly the bond dictionary of (u, v); nothing else. *)
Theorem C10_gml_roundtrip_reindex :
  forall c : gr, its_ok c = true ->
    let f := mapget (enum_from 1%N (node_ids c)) in
    let I' := gml_to_its (its_to_gml c false true false) in
    (forall a b, In a (node_ids c) -> In b (node_ids c) -> f a = f b -> a = b) /\
    (forall k, has_node I' k = true <-> exists n, In n (node_ids c) /\ k = f n) /\
    (forall n a, label c n = Some a ->
       label I' (f n) = Some (gml_node (f n) (tg_el (tG_of a)) (tg_ch (tG_of a)) (tg_ch (tH_of a)))) /\
    (forall u v, In u (node_ids c) -> In v (node_ids c) -> adj I' (f u) (f v) = adj c u v) /\
    (forall k l x, adj I' k l = Some x ->
       exists u v, In u (node_ids c) /\ In v (node_ids c) /\ k = f u /\ l = f v /\ adj c u v = Some x).
Proof. exact gml_roundtrip_reindex. Qed.
Print Assumptions C10_gml_roundtrip_reindex.

(** ... and with reindex=True (the default of its_to_gml): both rules read back as renumberings fA / fB of the centre
    c = get_rc I — same element and charges at fA n and fB n, same bond dictionary between (fA u, fA v) and (fB u, fB v),
    no other atoms.  (The two numberings may differ: the node order of the centre of the centre need not be the node
    order of the centre; the rules are then equivalent, not equal.) *)
Theorem C10_two_routes_centre_reindex :
  forall I : gr, gwfb I = true -> all_tgh I = true -> its_ok (get_rc I) = true ->
    let c := get_rc I in
    let fA := mapget (enum_from 1%N (node_ids c)) in
    let fB := mapget (enum_from 1%N (node_ids (get_rc c))) in
    let A := gml_to_its (its_to_gml I true true false) in
    let B := gml_to_its (its_to_gml c true true false) in
    (forall n a, label c n = Some a ->
       let e := tg_el (tG_of a) in let q := tg_ch (tG_of a) in let q' := tg_ch (tH_of a) in
       label A (fA n) = Some (gml_node (fA n) e q q') /\ label B (fB n) = Some (gml_node (fB n) e q q')) /\
    (forall u v, has_node c u = true -> has_node c v = true ->
       adj A (fA u) (fA v) = adj c u v /\ adj B (fB u) (fB v) = adj c u v) /\
    (forall k, has_node A k = true <-> exists n, has_node c n = true /\ k = fA n) /\
    (forall k, has_node B k = true <-> exists n, has_node c n = true /\ k = fB n).
Proof. exact two_routes_centre_reindex. Qed.
Print Assumptions C10_two_routes_centre_reindex.

(** Molecule -> graph -> molecule, the part that is logic (attribute copying in MolToGraph.transform and
    GraphToMol.graph_to_mol, default flags).  For every molecule as the code reads it from RDKit (atoms in index order:
    symbol, aromatic flag, total H count, formal charge, atom map; bonds between two different existing atoms, one per
    pair: [wf_mol]) the RWMol handed back to RDKit has exactly those atoms in the same order — symbol, charge, atom map,
    and the total H count as explicit no-implicit count — and between every pair of atom indices exactly the bond that
    was read, with the type get_bond_type_from_order gives (aromatic flags are NOT handed back: RDKit re-perceives them
    from the AROMATIC bonds when it sanitises).  Bond list ORDER / orientation is not claimed. *)
Theorem C10_mol_graph_roundtrip :
  forall m : rmol, wf_mol m = true ->
    exists bonds', graph_to_mol (mol_to_graph m false false) = Some (map atom_back (fst m), bonds') /\
                   forall i j, bond_find i j bonds' = option_map bond_type (bond_find i j (snd m)).
Proof. exact mol_graph_roundtrip. Qed.
Print Assumptions C10_mol_graph_roundtrip.

(** SMILES -> graph -> SMILES.  RDKit is not modelled: [read] stands for MolFromSmiles + SanitizeMol + the getters,
    [write] for SanitizeMol + MolToSmiles on the rebuilt RWMol, [canon] for RDKit's canonical SMILES without stereo.
    Under the two contracts spelled out as premises (RDKit molecules are well formed with bond types single / aromatic /
    double / triple; rebuilding a molecule from the same atoms — total H count explicit — and the same bonds, in any bond
    order, writes the canonical SMILES), graph_to_smi (smiles_to_graph s) is the canonical SMILES.
    Both premises are monitored: oracle clause smiles-roundtrip on every molecule case (TESTED_NOT_PROVED). *)
Theorem C10_smiles_roundtrip_under_rdkit_contract :
  forall (Smi : Type) (read : Smi -> option rmol) (write : list watom * list (N * N * Z) -> option Smi) (canon : Smi -> Smi),
    (forall s m, read s = Some m -> wf_mol m = true /\ forall b e o, In (b, e, o) (snd m) -> bond_type o = o) ->
    (forall s m bonds', read s = Some m -> (forall i j, bond_find i j bonds' = bond_find i j (snd m)) ->
                        write (map atom_back (fst m), bonds') = Some (canon s)) ->
    forall s m, read s = Some m ->
      match graph_to_mol (mol_to_graph m false false) with Some w => write w | None => None end = Some (canon s).
Proof. exact smiles_roundtrip_under_contract. Qed.
Print Assumptions C10_smiles_roundtrip_under_rdkit_contract.

(** Heavy-atom skeleton, implicit direction: for EVERY networkx graph (any explicit hydrogens, also outside [h_dom])
    h_to_implicit keeps every non-hydrogen node with element, aromaticity, charge, atom_map and typesGH untouched (only
    hcount may change) and keeps the bond dictionary between any two nodes that are not hydrogens. *)
Theorem C10_h_implicit_skeleton :
  forall g : gr, gwfb g = true ->
    let F := h_to_implicit g in
    (forall n a, label g n = Some a -> el_is_H a = false -> exists a', label F n = Some a' /\ same_but_hc a' a) /\
    (forall u v, is_H g u = false -> is_H g v = false -> adj F u v = adj g u v).
Proof. exact h_implicit_skeleton. Qed.
Print Assumptions C10_h_implicit_skeleton.

(** From the reaction string to the rule and back (end to end after RDKit).  For every pair of molecule graphs r, p as
    MolToGraph writes them ([mol_ok]) on the same atoms with the same elements ([balanced]: an atom-balanced mapped
    reaction) and every enumeration eo of the union of their bonds ([eo_covers]; the set-iteration artefact of ITSGraph),
    the rule written by smart_to_gml(core=True) reads back as the reaction centre c of ITSGraph(r, p): exactly its atoms,
    element and both charges at each, exactly its (before, after) bond dictionaries.  In particular the centre of an
    ITS built from molecule graphs always lies in the domain [its_ok]-as-a-proposition of C10_gml_roundtrip. *)
Theorem C10_smart_roundtrip :
  forall (r p : gr) (eo : list (N * N)),
    mol_ok r = true -> mol_ok p = true -> balanced r p = true -> eo_covers r p eo = true ->
    let c := get_rc (its_construct r p eo) in
    let I' := gml_to_its (smart_to_gml r p eo true false false) in
    (forall n, has_node I' n = has_node c n) /\
    (forall n a, label c n = Some a ->
       label I' n = Some (gml_node n (tg_el (tG_of a)) (tg_ch (tG_of a)) (tg_ch (tH_of a)))) /\
    (forall u v, adj I' u v = adj c u v).
Proof. intros r p eo Hr Hp Hb He. apply smart_roundtrip; auto. apply eo_covers_spec. exact He. Qed.
Print Assumptions C10_smart_roundtrip.

(** ITS -> GML -> ITS with explicit_hydrogen=True, for an ITS without implicit hydrogens ([hc_free]: what get_rc returns —
    the hcount key is dropped — so this is the core export of any reaction): the context section then also lists the
    unchanged bonds (all written with label "-", whatever their order) and h_to_explicit is run on the context, and the
    rule still reads back to exactly the atoms, charges and (before, after) bond dictionaries of c.  (With implicit
    hydrogens present the export adds hydrogen atoms on purpose; that case is covered by the correspondence only.) *)
Theorem C10_gml_roundtrip_explicit_h :
  forall c : gr, its_ok c = true -> hc_free c = true ->
    let I' := gml_to_its (its_to_gml c false false true) in
    (forall n, has_node I' n = has_node c n) /\
    (forall n a, label c n = Some a ->
       label I' n = Some (gml_node n (tg_el (tG_of a)) (tg_ch (tG_of a)) (tg_ch (tH_of a)))) /\
    (forall u v, adj I' u v = adj c u v).
Proof. exact gml_roundtrip_eh. Qed.
Print Assumptions C10_gml_roundtrip_explicit_h.

(** Hydrogen round trip and skeleton for an ARBITRARY node list (partial / staged expansion: a subset of the atoms, a
    single reactive atom as the reactor does, duplicates, ids that are not atoms).  [exp_nodes g nodes] = the atoms
    visited (all of them for None / []).  The new hydrogens are numbered above EVERY id of the graph
    ((max_id g < h): fresh ids avoid all existing ids, whatever subset was selected), old atoms are never overwritten:
    atoms outside the subset keep their dictionary, atoms inside have hcount lowered; folding back restores the graph
    as in C10_h_roundtrip, at the selected atoms. *)
Theorem C10_h_explicit_skeleton_nodes :
  forall (g : gr) (nodes : option (list N)), gwfb g = true ->
    let E := h_to_explicit g nodes false in
    (forall n a, label g n = Some a -> label E n = Some (if mem n (exp_nodes g nodes) then h_lowered a else a)) /\
    (forall u v, In u (node_ids g) -> In v (node_ids g) -> adj E u v = adj g u v) /\
    (forall h, In h (node_ids E) -> ~ In h (node_ids g) ->
       (max_id g < h)%N /\ label E h = Some H_att /\
       exists m, In m (node_ids g) /\ forall w, adj E h w = if N.eqb w m then Some e_single else None).
Proof. exact h_explicit_skeleton_nodes. Qed.
Print Assumptions C10_h_explicit_skeleton_nodes.

Theorem C10_h_roundtrip_nodes :
  forall (g : gr) (nodes : option (list N)), gwfb g = true -> no_H g = true ->
    let g' := h_to_implicit (h_to_explicit g nodes false) in
    node_ids g' = node_ids g /\
    (forall n a, label g n = Some a ->
       label g' n = Some (if mem n (exp_nodes g nodes) then h_restore a else a)) /\
    (forall u v, adj g' u v = adj g u v).
Proof. exact h_roundtrip_nodes. Qed.
Print Assumptions C10_h_roundtrip_nodes.

(** Options: attribute selections (node_attrs / edge_attrs of smiles_to_graph, rsmi_to_graph, MolToGraph).  The model is a
    pure function of (molecule, flags, selection): a conversion cannot depend on what was converted before (the history
    cases of the harness test exactly this of the implementation).  Keeping every key is the unselected conversion;
    selecting twice is selecting the intersection, in either order; and every selection that keeps element, hcount, charge
    and atom_map (the default one does; 'aromatic' and 'neighbors' may go) hands RDKit back exactly the same molecule. *)
Theorem C10_select_all :
  forall (m : rmol) (drop ui : bool), mol_to_graph_sel m drop ui asel_all true = mol_to_graph m drop ui.
Proof. exact select_all. Qed.
Print Assumptions C10_select_all.

Theorem C10_select_twice :
  forall (s t : asel) (ks kt : bool) (g : gr),
    sel_graph s ks (sel_graph t kt g) =
    sel_graph (AS (k_el s && k_el t) (k_ar s && k_ar t) (k_hc s && k_hc t) (k_ch s && k_ch t) (k_am s && k_am t)) (ks && kt) g.
Proof. exact select_twice. Qed.
Print Assumptions C10_select_twice.

Theorem C10_graph_to_mol_selection :
  forall (s : asel) (g : gr), k_el s = true -> k_hc s = true -> k_ch s = true -> k_am s = true ->
    graph_to_mol (sel_graph s true g) = graph_to_mol g.
Proof. exact graph_to_mol_sel. Qed.
Print Assumptions C10_graph_to_mol_selection.

(** The graphs rsmi_to_graph builds (drop_non_aam=True, use_index_as_atom_map=True) from an RDKit molecule with element
    symbols in [A-Za-z*]+, RDKit bond types and distinct map numbers ([rdmol_ok], a contract about RDKit output monitored per
    case) are molecule graphs without standard_order: the premises [mol_ok] of C10_smart_roundtrip and [mol_ok], [std_free] of
    C10_two_routes_full hold for them. *)
Theorem C10_rsmi_graph_mol_ok :
  forall m : rmol, rdmol_ok m = true ->
    mol_ok (mol_to_graph m true true) = true /\ std_free (mol_to_graph m true true) = true.
Proof. intros m H. split; [exact (rsmi_graph_mol_ok m H)|exact (rsmi_graph_std_free m H)]. Qed.
Print Assumptions C10_rsmi_graph_mol_ok.

(** implicit_hydrogen / graph_to_smi with a preserve list (finding graph_to_smi:preserve_atom_maps:bare-hydrogen-dropped,
    SynKit commit 3ba7a77): a hydrogen all of whose neighbours are hydrogens (H2, H+, a
    lone H) is an atom of implicit_hydrogen(graph, preserve) whatever the preserve list — for every networkx graph.  [implicit_hydrogen_old]
    models SynKit before that commit; with it H2 is handed to RDKit as the empty molecule
    (proof/C10_Select.v preserve_bare_h_old_refuted). *)
Theorem C10_implicit_hydrogen_keeps_bare_h :
  forall (g : gr) (l : list Z) (n : N), gwfb g = true ->
    is_H g n = true -> (forall w, adj g n w <> None -> is_H g w = true) -> has_node (implicit_hydrogen g l) n = true.
Proof. exact implicit_hydrogen_keeps_bare. Qed.
Print Assumptions C10_implicit_hydrogen_keeps_bare_h.

(** NXToGML.transform(attributes=[...]): with the default ["charge"] the generalised writer of the model is the writer the
    round-trip theorems are about. *)
Theorem C10_changed_attributes_default :
  forall (Lg Rg Kg : gr) (reindex explicit_h : bool),
    nx_to_gml_sel asel_charge Lg Rg Kg reindex explicit_h = nx_to_gml Lg Rg Kg reindex explicit_h.
Proof. exact nx_to_gml_sel_charge. Qed.
Print Assumptions C10_changed_attributes_default.

(** Two routes, FULL export (core=False).  For an atom-balanced pair of molecule graphs r, p (no standard_order on their
    bonds: [std_free]) the rule written from the reaction string (smart_to_gml core=False: left / right = r / p themselves)
    and the rule written from the ITS (its_to_gml core=False: left / right = its_decompose of the ITS) read back to the same
    graph: the whole ITS I = ITSGraph(r, p) — same atoms, element and both charges at each, same (before, after) bond
    dictionaries.  In particular the full ITS of molecule graphs lies in the domain of C10_gml_roundtrip. *)
Theorem C10_two_routes_full :
  forall (r p : gr) (eo : list (N * N)),
    mol_ok r = true -> mol_ok p = true -> balanced r p = true -> eo_covers r p eo = true ->
    std_free r = true -> std_free p = true ->
    let I := its_construct r p eo in
    let A := gml_to_its (smart_to_gml r p eo false false false) in
    let B := gml_to_its (its_to_gml I false false false) in
    (forall n, has_node A n = has_node I n /\ has_node B n = has_node I n) /\
    (forall n a, label I n = Some a ->
       let x := Some (gml_node n (tg_el (tG_of a)) (tg_ch (tG_of a)) (tg_ch (tH_of a))) in label A n = x /\ label B n = x) /\
    (forall u v, adj A u v = adj I u v /\ adj B u v = adj I u v).
Proof. exact two_routes_full_b. Qed.
Print Assumptions C10_two_routes_full.

(** NXToGML.transform(attributes=[...]) with any list that contains "charge": more atoms may move from the context section to
    left/right (because their hcount, aromaticity, element or atom_map differ between the two sides) but the rule still reads
    back to exactly the atoms, charges and (before, after) bond dictionaries of c. *)
Theorem C10_changed_attributes_roundtrip :
  forall (c : gr) (s : asel), its_ok c = true -> k_ch s = true ->
    let I' := snd (gml_to_nx (nx_to_gml_sel s (fst (its_decompose c)) (snd (its_decompose c)) c false false)) in
    (forall n, has_node I' n = has_node c n) /\
    (forall n a, label c n = Some a ->
       label I' n = Some (gml_node n (tg_el (tG_of a)) (tg_ch (tG_of a)) (tg_ch (tH_of a)))) /\
    (forall u v, adj I' u v = adj c u v).
Proof. exact attributes_roundtrip. Qed.
Print Assumptions C10_changed_attributes_roundtrip.

(** The light-weight builder MolToGraph.mol_to_graph(mol, light_weight=True) — one loop in which every atom adds its own
    node and then its own bonds, so that neighbours may enter the graph before their turn — builds the same graph as
    MolToGraph.transform (default flags): the same node dictionary at every id and the same bond dictionary at every pair.
    Premises about RDKit (monitored: oracle clause rdkit-contract): [ab] lists for every atom exactly its bonds
    (atom.GetBonds()), i.e. it agrees with the bond list of the molecule in both directions. *)
Theorem C10_light_weight_same_graph :
  forall (m : rmol) (ab : list (list (N * Z))),
    wf_mol m = true -> List.length ab = List.length (fst m) ->
    (forall i bs nb o, nth_error ab i = Some bs -> In (nb, o) bs -> bond_find (N.of_nat i) nb (snd m) = Some o) ->
    (forall i nb o, bond_find i nb (snd m) = Some o -> exists bs, nth_error ab (N.to_nat i) = Some bs /\ In (nb, o) bs) ->
    let g := mol_to_graph_light m ab false false in
    let g' := mol_to_graph m false false in
    (forall n, label g n = label g' n) /\ (forall u v, adj g u v = adj g' u v).
Proof. exact light_eq. Qed.
Print Assumptions C10_light_weight_same_graph.

(** reindex=True together with explicit_hydrogen=True (graphs without implicit hydrogens, i.e. every core export): the last
    cell of the (reindex, explicit_hydrogen) matrix of its_to_gml — the round trip holds up to the renumbering f. *)
Theorem C10_gml_roundtrip_reindex_explicit_h :
  forall c : gr, its_ok c = true -> hc_free c = true ->
    let f := mapget (enum_from 1%N (node_ids c)) in
    let I' := gml_to_its (its_to_gml c false true true) in
    (forall k, has_node I' k = true <-> exists n, In n (node_ids c) /\ k = f n) /\
    (forall n a, label c n = Some a ->
       label I' (f n) = Some (gml_node (f n) (tg_el (tG_of a)) (tg_ch (tG_of a)) (tg_ch (tH_of a)))) /\
    (forall u v, In u (node_ids c) -> In v (node_ids c) -> adj I' (f u) (f v) = adj c u v).
Proof. exact gml_roundtrip_reindex_eh. Qed.
Print Assumptions C10_gml_roundtrip_reindex_explicit_h.

(** GraphToMol options: with the flags graph_to_smi passes (ignore_bond_order=False, use_h_count=True) the general converter
    of the model is the one the round-trip theorems are about; whatever ignore_bond_order is, the atoms handed to RDKit are
    the same. *)
Theorem C10_graph_to_mol_options :
  (forall g : gr, graph_to_mol_gen false true g = graph_to_mol g) /\
  (forall (ignore : bool) (g : gr) atoms bonds, graph_to_mol_gen ignore true g = Some (atoms, bonds) ->
     atoms = map (fun p : N * natt => g2m_atom (snd p)) (gnodes g)).
Proof. split; [exact graph_to_mol_gen_default|exact graph_to_mol_gen_atoms]. Qed.
Print Assumptions C10_graph_to_mol_options.

(** THE TEXT LAYER.  [render name r] is the text NXToGML writes for a record (its f-strings), [text_parse] is the tokenisation
    of GMLToNX.transform / _parse_element (split on newline, strip, "rule" and "]" lines skipped, section detection by
    substring, str.split(), tokens.index(key) + 1, int(), strip of the double quotes, 'node in line' tested before 'edge in
    line').  For every rule name without a newline and every record whose entries are in the domain [rec_okb] — labels
    without whitespace and without a double quote (the bond labels - = # : and element+charge labels are), and no rendered
    line containing a section keyword (nor, for an edge, the word node) — the reader recovers exactly the entries of the
    record, section by section and in order.  Labels outside the domain are really not read back (proof/C10_Text.v
    text_roundtrip_needs_ok: a label spelling a keyword turns the line into a section header). *)
Theorem C10_text_roundtrip :
  forall (name : str) (r : grec), ~ In 10%N name -> rec_okb r = true -> text_parse (render name r) = Some (flatten r).
Proof. exact text_roundtrip. Qed.
Print Assumptions C10_text_roundtrip.

(** ... hence reading the rendered text gives exactly the three graphs of the record layer, about which all the GML
    theorems above are stated (C10_gml_roundtrip*, C10_two_routes_*, C10_smart_roundtrip hold verbatim for
    option_map snd (text_to_nx (render name (its_to_gml ...))) whenever the written record is in [rec_okb], which the
    correspondence monitors on every export). *)
Theorem C10_text_reads_record :
  forall (name : str) (r : grec), ~ In 10%N name -> rec_okb r = true -> text_to_nx (render name r) = Some (gml_to_nx r).
Proof. exact text_to_nx_render. Qed.
Print Assumptions C10_text_reads_record.

(** THREE DOCUMENTED ROUTES to the rule of a reaction, end to end after RDKit, with and without explicit_hydrogen: from the
    reaction string (smart_to_gml), from its full ITS (its_to_gml(rsmi_to_its(rsmi))) and from the centre only
    (its_to_gml(rsmi_to_its(rsmi, core=True)) — "whether the full ITS or only its centre is supplied").  For every
    atom-balanced pair of molecule graphs and every enumeration of their bonds, each of the three rules reads back as the
    reaction centre c of ITSGraph(r, p): exactly its atoms, element and both charges at each, exactly its (before, after) bond
    dictionaries — so the three rules are equivalent.  (core=True, ids kept; explicit_hydrogen either way: a centre carries no
    hcount, so the explicit_hydrogen export only adds the unchanged bonds to the context.) *)
Theorem C10_three_routes :
  forall (r p : gr) (eo : list (N * N)) (explicit_h : bool),
    mol_ok r = true -> mol_ok p = true -> balanced r p = true -> eo_covers r p eo = true ->
    let c := get_rc (its_construct r p eo) in
    let reads_c := fun X : gr =>
      (forall n, has_node X n = has_node c n) /\
      (forall n a, label c n = Some a ->
         label X n = Some (gml_node n (tg_el (tG_of a)) (tg_ch (tG_of a)) (tg_ch (tH_of a)))) /\
      (forall u v, adj X u v = adj c u v) in
    reads_c (gml_to_its (smart_to_gml r p eo true false explicit_h)) /\
    reads_c (gml_to_its (its_to_gml (rsmi_to_its r p eo false false) true false explicit_h)) /\
    reads_c (gml_to_its (its_to_gml (rsmi_to_its r p eo true false) true false explicit_h)).
Proof. exact three_routes. Qed.
Print Assumptions C10_three_routes.

(** rsmi_to_its(explicit_hydrogen=True): making the hydrogens of the ITS explicit (h_to_explicit in ITS mode) keeps its total
    hydrogen count — any two graphs, any enumeration. *)
Theorem C10_rsmi_to_its_total_h :
  forall (r p : gr) (eo : list (N * N)),
    total_h (rsmi_to_its r p eo false true) = total_h (rsmi_to_its r p eo false false).
Proof. exact rsmi_to_its_total_h. Qed.
Print Assumptions C10_rsmi_to_its_total_h.

(** graph_to_rsmi / its_to_rsmi / gml_to_smart up to the molecules handed to RDKit.  (i) When the reaction centre contains no
    hydrogen atom the explicit_hydrogen flag is irrelevant: both settings hand RDKit graph_to_mol r and graph_to_mol p.
    (ii) Otherwise the list of preserved atom maps is exactly the atom maps of the hydrogens of the centre, in node order
    (a hydrogen without the key makes the call fail: rc_h_maps = None), and (iii) on graphs that carry the keys
    implicit_hydrogen subscripts, the preserve path is the lenient function graph_to_smi_mol of model/C10_Model.v. *)
Theorem C10_graph_to_rsmi_flags :
  (forall (r p its : gr) (explicit_h : bool), no_H (get_rc its) = true ->
     graph_to_rsmi_mols r p its explicit_h = Some (graph_to_mol r, graph_to_mol p)) /\
  (forall (rc : gr) (l : list Z), rc_h_maps rc = Some l ->
     l = map (fun q : N * natt => dflt (a_am (snd q)) 0) (filter (fun q : N * natt => el_is_H (snd q)) (gnodes rc))) /\
  (forall (g : gr) (l : list Z), imph_keys_ok g = true -> graph_to_smi_mol_k g l = graph_to_smi_mol g l).
Proof. split; [exact graph_to_rsmi_no_H|split; [exact rc_h_maps_spec|exact graph_to_smi_mol_k_ok]]. Qed.
Print Assumptions C10_graph_to_rsmi_flags.

(** implicit_hydrogen(graph, preserve_atom_maps, reindex=True) — the renumbering tail: for every networkx graph the result is
    implicit_hydrogen(graph, preserve_atom_maps) renumbered by f = position (from 1) in node order: f is injective on the atoms
    kept, the result has exactly the atoms f n, at f n the dictionary of n with atom_map := f n, and between f u and f v
    exactly the bond of (u, v). *)
Theorem C10_implicit_hydrogen_reindex :
  forall (g : gr) (l : list Z), gwfb g = true ->
    let g1 := implicit_hydrogen g l in
    let f := mapget (enum_from 1%N (node_ids g1)) in
    let R := implicit_hydrogen_reindex g l in
    (forall a b, In a (node_ids g1) -> In b (node_ids g1) -> f a = f b -> a = b) /\
    (forall k, has_node R k = true <-> exists n, In n (node_ids g1) /\ k = f n) /\
    (forall n a, label g1 n = Some a -> label R (f n) = Some (set_am (Z.of_N (f n)) a)) /\
    (forall u v, In u (node_ids g1) -> In v (node_ids g1) -> adj R (f u) (f v) = adj g1 u v).
Proof. exact implicit_hydrogen_reindex_spec. Qed.
Print Assumptions C10_implicit_hydrogen_reindex.

(** HYDROGENS, EITHER MODE (its=False for molecule graphs, its=True for ITS graphs as rsmi_to_its(explicit_hydrogen=True) uses
    it; SynKit commit 61e730e).  [hexp_count its a] = the number of hydrogens made explicit at an atom (its=True and typesGH
    present: min(hcount, product-half hcount)); [h_lowered_gen] = what h_to_explicit leaves at the atom (hcount and the
    reactant half — its=True: both halves — of typesGH lowered by that number); [fin_edge] = the final normalize_edge_orders
    of the ITS mode (scalar order o -> (o, o), missing standard_order -> 0), the identity otherwise.
    Skeleton: for every networkx graph, any node list, either mode: old atoms keep everything but the lowered counts, bonds
    between old atoms keep their dictionary up to [fin_edge], every new node has an id above every id of the graph and is a
    hydrogen single-bonded to exactly one old atom. *)
Theorem C10_h_explicit_skeleton_any_mode :
  forall (g : gr) (nodes : option (list N)) (its : bool), gwfb g = true ->
    let E := h_to_explicit g nodes its in
    (forall n a, label g n = Some a -> label E n = Some (if mem n (exp_nodes g nodes) then h_lowered_gen its a else a)) /\
    (forall u v, In u (node_ids g) -> In v (node_ids g) -> adj E u v = option_map (fin_edge its) (adj g u v)) /\
    (forall h, In h (node_ids E) -> ~ In h (node_ids g) ->
       (max_id g < h)%N /\ label E h = Some H_att /\
       exists m, In m (node_ids g) /\ forall w, adj E h w = if N.eqb w m then Some (fin_edge its e_single) else None).
Proof. exact h_explicit_skeleton_gen. Qed.
Print Assumptions C10_h_explicit_skeleton_any_mode.

(** Round trip, either mode: for every networkx graph without explicit hydrogens and any node list, h_to_implicit after
    h_to_explicit has the same nodes in the same order, at every atom the same dictionary except that the typesGH halves
    lowered by h_to_explicit stay lowered ([h_restore_gen]: hcount itself IS restored), and the same bond dictionaries up to
    the normalisation [fin_edge] of the ITS mode. *)
Theorem C10_h_roundtrip_any_mode :
  forall (g : gr) (nodes : option (list N)) (its : bool), gwfb g = true -> no_H g = true ->
    let g' := h_to_implicit (h_to_explicit g nodes its) in
    node_ids g' = node_ids g /\
    (forall n a, label g n = Some a ->
       label g' n = Some (if mem n (exp_nodes g nodes) then h_restore_gen its a else a)) /\
    (forall u v, adj g' u v = option_map (fin_edge its) (adj g u v)).
Proof. exact h_roundtrip_gen. Qed.
Print Assumptions C10_h_roundtrip_any_mode.

(** h_to_implicit commutes with every map on edge attributes (it never reads them): in particular with the
    normalize_edge_orders that ends h_to_explicit(its=True). *)
Theorem C10_h_to_implicit_edge_natural :
  forall (F : eatt -> eatt) (G : gr), h_to_implicit (emap F G) = emap F (h_to_implicit G).
Proof. exact h_to_implicit_emap. Qed.
Print Assumptions C10_h_to_implicit_edge_natural.

(** ITS -> GML -> ITS with explicit_hydrogen=True for an ITS WITH implicit hydrogens (a full ITS).  NXToGML writes the context section from h_to_explicit(context): every implicit hydrogen becomes a context
    atom "H" with a context bond "-" to its atom; the reader copies context atoms and bonds into both sides.  For every ITS c in
    the domain [its_ok] the graph read back is c WITH ITS HYDROGENS EXPLICIT, E = normalize_edge_orders (h_to_explicit c):
    exactly the atoms of E (the atoms of c plus one hydrogen atom per implicit hydrogen), at each the element and both charges
    (for a new hydrogen: "H", 0, 0), and exactly the bond dictionaries of E (those of c, plus (1, 1) between a hydrogen and
    its atom).  What E looks like is C10_h_explicit_skeleton_any_mode / C10_h_total_explicit: the atoms and bonds of c are
    untouched and the hydrogen count is kept.  For [hc_free] graphs E has the lookups of c: C10_gml_roundtrip_explicit_h. *)
Theorem C10_gml_roundtrip_explicit_h_full :
  forall c : gr, its_ok c = true ->
    let E := normalize_edge_orders (h_to_explicit c None false) in
    let I' := gml_to_its (its_to_gml c false false true) in
    (forall n, has_node I' n = has_node E n) /\
    (forall n a, label E n = Some a ->
       label I' n = Some (gml_node n (tg_el (tG_of a)) (tg_ch (tG_of a)) (tg_ch (tH_of a)))) /\
    (forall u v, adj I' u v = adj E u v).
Proof. exact gml_roundtrip_eh_full. Qed.
Print Assumptions C10_gml_roundtrip_explicit_h_full.

(** _synchronize_nodes_and_edges for ANY context and side graph (context bonds missing from the side are added, bonds the side
    already has win; context atoms are added / their dictionaries updated): the two lookups of the result. *)
Theorem C10_sync_side_lookups :
  forall (ctx side : gr), gwfb ctx = true ->
    (forall u v, adj (sync_side ctx side) u v = match adj side u v with Some y => Some y | None => adj ctx u v end) /\
    (forall n, label (sync_side ctx side) n =
               match label ctx n with
               | Some a => Some (match label side n with Some old => na_update a old | None => a end)
               | None => label side n
               end).
Proof. exact sync_side_lookups. Qed.
Print Assumptions C10_sync_side_lookups.

(** The correspondence also compares the LAST INTERMEDIATE STATE of NXToGML.transform — the three graphs and the changed-node list
    handed to _rule_grammar, after h_to_explicit of the context and after the reindex relabelling (observed by a spy on the real
    call).  The writers the theorems above speak about are _rule_grammar of exactly that state. *)
Theorem C10_writer_is_rule_grammar_of_mid :
  (forall (Lg Rg Kg : gr) (reindex explicit_h : bool),
     nx_to_gml Lg Rg Kg reindex explicit_h = rule_grammar (nx_to_gml_mid Lg Rg Kg reindex explicit_h) explicit_h) /\
  (forall (its : gr) (core reindex explicit_h : bool),
     its_to_gml its core reindex explicit_h = rule_grammar (its_to_gml_mid its core reindex explicit_h) explicit_h).
Proof. split; [exact nx_to_gml_mid_spec|exact its_to_gml_mid_spec]. Qed.
Print Assumptions C10_writer_is_rule_grammar_of_mid.

(** ... and with reindex=True (THE DEFAULT of its_to_gml; smart_to_gml defaults to False): each of the three rules reads back as a
    renumbering of the reaction centre c — exactly the atoms f n, element and both charges of n at f n, the bond dictionary of
    (u, v) at (f u, f v) — with f = position in the node order of c for the string and the full-ITS routes, and position in
    the node order of get_rc c for the centre-supplied route (the two orders may differ: equivalent rules, not equal ones). *)
Theorem C10_three_routes_reindex :
  forall (r p : gr) (eo : list (N * N)) (explicit_h : bool),
    mol_ok r = true -> mol_ok p = true -> balanced r p = true -> eo_covers r p eo = true ->
    let c := get_rc (its_construct r p eo) in
    let fA := mapget (enum_from 1%N (node_ids c)) in
    let fC := mapget (enum_from 1%N (node_ids (get_rc c))) in
    let reads_c_by := fun (f : N -> N) (X : gr) =>
      (forall k, has_node X k = true <-> exists n, In n (node_ids c) /\ k = f n) /\
      (forall n a, label c n = Some a ->
         label X (f n) = Some (gml_node (f n) (tg_el (tG_of a)) (tg_ch (tG_of a)) (tg_ch (tH_of a)))) /\
      (forall u v, In u (node_ids c) -> In v (node_ids c) -> adj X (f u) (f v) = adj c u v) in
    reads_c_by fA (gml_to_its (smart_to_gml r p eo true true explicit_h)) /\
    reads_c_by fA (gml_to_its (its_to_gml (rsmi_to_its r p eo false false) true true explicit_h)) /\
    reads_c_by fC (gml_to_its (its_to_gml (rsmi_to_its r p eo true false) true true explicit_h)).
Proof. exact three_routes_reindex. Qed.
Print Assumptions C10_three_routes_reindex.

(** THE LAST CELL of the option matrix of its_to_gml: reindex=True together with explicit_hydrogen=True on an ITS with implicit
    hydrogens.  The relabelling map covers the old ids (old id -> position from 1); the hydrogens h_to_explicit added keep their
    ids (max id + 1 ...).  For every [its_ok] ITS whose node ids are >= 1 (atom maps are) the rule reads back as
    E = normalize_edge_orders (h_to_explicit c) renumbered by f = that map (the identity on the new hydrogens): f is injective
    on the atoms of E, the graph read back has exactly the atoms f n, at f n the element and both charges of n, and between
    f u and f v exactly the bond dictionary of (u, v). *)
Theorem C10_gml_roundtrip_reindex_explicit_h_full :
  forall c : gr, its_ok c = true -> forallb (fun n => (1 <=? n)%N) (node_ids c) = true ->
    let E := normalize_edge_orders (h_to_explicit c None false) in
    let f := mapget (enum_from 1%N (node_ids c)) in
    let I' := gml_to_its (its_to_gml c false true true) in
    (forall a b, In a (node_ids E) -> In b (node_ids E) -> f a = f b -> a = b) /\
    (forall k, has_node I' k = true <-> exists n, In n (node_ids E) /\ k = f n) /\
    (forall n a, label E n = Some a ->
       label I' (f n) = Some (gml_node (f n) (tg_el (tG_of a)) (tg_ch (tG_of a)) (tg_ch (tH_of a)))) /\
    (forall u v, In u (node_ids E) -> In v (node_ids E) -> adj I' (f u) (f v) = adj E u v).
Proof. exact gml_roundtrip_reindex_eh_full. Qed.
Print Assumptions C10_gml_roundtrip_reindex_explicit_h_full.

(** ... and the hypothesis on the ids cannot be dropped (OBSERVATION, outside the property's quantifier — corpus reactions and
    their renumberings have ids >= 1): with 0-based node ids the first new hydrogen id equals the new id of the last atom,
    relabel_nodes merges the two nodes and an atom is lost; without reindex the same export is fine.  The witness is replayed on
    the implementation by the correspondence (corpus/regress/C10/reindex_eh_id0.json). *)
Theorem C10_reindex_explicit_h_needs_positive_ids :
  exists c : gr, its_ok c = true /\ forallb (fun n => (1 <=? n)%N) (node_ids c) = false /\
    List.length (gnodes (normalize_edge_orders (h_to_explicit c None false))) = 3%nat /\
    List.length (gnodes (gml_to_its (its_to_gml c false false true))) = 3%nat /\
    List.length (gnodes (gml_to_its (its_to_gml c false true true))) = 2%nat.
Proof. exact reindex_eh_needs_positive_ids. Qed.
Print Assumptions C10_reindex_explicit_h_needs_positive_ids.

(** Full ITS vs its centre for an ARBITRARY ITS graph I (any networkx graph whose nodes carry typesGH and whose centre is in the
    round-trip domain — not only ITSGraph of molecule graphs), explicit_hydrogen either way: the rule exported from I with
    core=True and the rule exported from get_rc I both read back as exactly the centre (generalises C10_two_routes_centre to
    explicit_hydrogen=True: a centre carries no hcount, so only the unchanged bonds are added to the context). *)
Theorem C10_two_routes_centre_explicit_h :
  forall (I : gr) (explicit_h : bool), gwfb I = true -> all_tgh I = true -> its_ok (get_rc I) = true ->
    let c := get_rc I in
    let reads_c := fun X : gr =>
      (forall n, has_node X n = has_node c n) /\
      (forall n a, label c n = Some a ->
         label X n = Some (gml_node n (tg_el (tG_of a)) (tg_ch (tG_of a)) (tg_ch (tH_of a)))) /\
      (forall u v, adj X u v = adj c u v) in
    reads_c (gml_to_its (its_to_gml I true false explicit_h)) /\ reads_c (gml_to_its (its_to_gml c true false explicit_h)).
Proof. exact two_routes_centre_any. Qed.
Print Assumptions C10_two_routes_centre_explicit_h.

(** RENUMBERING A REACTION RENUMBERS ITS RULE ("all corpus reactions and their renumberings").  Let (r', p') be (r, p) with every
    atom id n replaced by s n: s injective on the atoms, r' has exactly the atoms s n, the dictionary of s n in r' is the one of n
    in r except for atom_map, and the bond of (s u, s v) is the bond of (u, v) — the same for p, p' (what renumbering the atom
    maps of a reaction string does to rsmi_to_graph's output; proof/C10_Renumber.v rename_graph_renamed: the literal renumbering
    of a graph by an injective map is such a pair).  Then the rule smart_to_gml writes for (r', p') reads back as the rule of
    (r, p) renumbered by s: exactly the atoms s n, the same element and charges at s n as at n, the same (before, after) bond
    dictionary at (s u, s v) as at (u, v).  explicit_hydrogen either way; any bond enumerations. *)
Theorem C10_rule_renumbering :
  forall (s : N -> N) (r p r' p' : gr) (eo eo' : list (N * N)) (explicit_h : bool),
    let ren := fun G G' : gr =>
      (forall a b, has_node G a = true -> has_node G b = true -> s a = s b -> a = b) /\
      (forall k, has_node G' k = true <-> exists n, has_node G n = true /\ k = s n) /\
      (forall n a, label G n = Some a ->
         exists a', label G' (s n) = Some a' /\
                    a_el a' = a_el a /\ a_ar a' = a_ar a /\ a_hc a' = a_hc a /\ a_ch a' = a_ch a /\ a_tgh a' = a_tgh a) /\
      (forall u v, has_node G u = true -> has_node G v = true -> adj G' (s u) (s v) = adj G u v) in
    mol_ok r = true -> mol_ok p = true -> balanced r p = true -> eo_covers r p eo = true ->
    mol_ok r' = true -> mol_ok p' = true -> balanced r' p' = true -> eo_covers r' p' eo' = true ->
    ren r r' -> ren p p' ->
    let A := gml_to_its (smart_to_gml r p eo true false explicit_h) in
    let A' := gml_to_its (smart_to_gml r' p' eo' true false explicit_h) in
    (forall k, has_node A' k = true <-> exists n, has_node A n = true /\ k = s n) /\
    (forall n e q q', label A n = Some (gml_node n e q q') -> label A' (s n) = Some (gml_node (s n) e q q')) /\
    (forall u v, has_node A u = true -> has_node A v = true -> adj A' (s u) (s v) = adj A u v).
Proof.
  intros s r p r' p' eo eo' eh ren Hr Hp Hb He Hr' Hp' Hb' He' (R1 & R2 & R3 & R4) (S1 & S2 & S3 & S4).
  apply (rule_renumbering s r p r' p' eo eo' eh Hr Hp Hb He Hr' Hp' Hb' He');
    [exact (Build_renamed s r r' R1 R2 R3 R4)|exact (Build_renamed s p p' S1 S2 S3 S4)].
Qed.
Print Assumptions C10_rule_renumbering.

(** KNOWN FINDING smiles_to_graph:use_index_as_atom_map:partial-mapping-id-collision (code kept as it is; known_findings.d/C10.json).
    SMILES -> graph loses an atom under the non-default flag use_index_as_atom_map=True (with drop_non_aam=False) on a PARTIALLY
    mapped molecule: mapped atoms are numbered by their map number, unmapped atoms by index + 1, and the two ranges overlap.
    Witness [CH3:2]C: a well-formed molecule with distinct map numbers, two atoms, ONE node (with a self-loop) in the graph, and
    graph_to_mol fails on it; with the default flags the same molecule converts to two nodes and back.  Fully mapped and unmapped
    molecules and rsmi_to_graph (drop_non_aam=True) are unaffected; the oracle emits the finding's key exactly when an unmapped
    atom's index + 1 equals another atom's map number. *)
Theorem C10_partial_mapping_id_collision_refuted :
  exists m : rmol, wf_mol m = true /\ nodupb (map fst (numT (fst m))) = true /\
    List.length (gnodes (mol_to_graph m false true)) = 1%nat /\ List.length (fst m) = 2%nat /\
    graph_to_mol (mol_to_graph m false true) = None /\
    List.length (gnodes (mol_to_graph m false false)) = 2%nat /\ graph_to_mol (mol_to_graph m false false) <> None.
Proof. exact partial_mapping_id_collision_refuted. Qed.
Print Assumptions C10_partial_mapping_id_collision_refuted.

(** DFS-STYLE ANNOTATED SMILES ("[H]1", map number after the bracket; the wildcard is "[]3") <-> SMILES WITH ATOM MAPS ("[H:1]",
    "[*:3]"): the string rewriting at the bottom of chem_converter.py (dfs_to_smiles / smiles_to_dfs: str.replace + re.sub,
    modelled on code-point lists in model/C10_Dfs.v and compared on every run).  For every token string — bracket atoms
    "[inner]digits" whose content has no bracket and no colon and is not "*", wildcard atoms "[]digits", every map number followed by
    a non-digit, and any other characters except "[" in between — that does not contain "[*]": dfs_to_smiles moves every map number
    into its bracket (writing the wildcard "[*:n]"), smiles_to_dfs moves it out again, and DFS -> SMILES -> DFS is the identity.
    (Outside the domain it is not: "[C:1]5" comes back as "[C]15", proof/C10_Dfs.v dfs_roundtrip_needs_stop.) *)
Theorem C10_dfs_roundtrip :
  forall l : list dtok, toks_ok l = true -> contains s_star_br (render_toks l) = false ->
    dfs_to_smiles (render_toks l) true = render_mapped l /\ smiles_to_dfs (render_mapped l) = render_toks l /\
    smiles_to_dfs (dfs_to_smiles (render_toks l) true) = render_toks l.
Proof. exact dfs_roundtrip. Qed.
Print Assumptions C10_dfs_roundtrip.

(** THE THREE ROUTES, FROM THE RDKIT RECORDS: the inputs are what MolToGraph reads from the two sanitised RDKit molecules of a reaction
    string (atoms: symbol, aromatic flag, total H count, charge, map; bonds: begin, end, 2 x type), in the contract [rdmol_ok] (element
    symbols in [A-Za-z*]+, bond types single / aromatic / double / triple, distinct map numbers — monitored per molecule);
    r, p = rsmi_to_graph's graphs (drop_non_aam = use_index_as_atom_map = True).  If the reaction is atom-balanced, the rule written
    from the string, from the full ITS and from the centre only each read back as exactly the reaction centre. *)
Theorem C10_three_routes_from_records :
  forall (mr mp : rmol) (eo : list (N * N)) (explicit_h : bool),
    rdmol_ok mr = true -> rdmol_ok mp = true ->
    let r := mol_to_graph mr true true in
    let p := mol_to_graph mp true true in
    balanced r p = true -> eo_covers r p eo = true ->
    let c := get_rc (its_construct r p eo) in
    let reads_c := fun X : gr =>
      (forall n, has_node X n = has_node c n) /\
      (forall n a, label c n = Some a ->
         label X n = Some (gml_node n (tg_el (tG_of a)) (tg_ch (tG_of a)) (tg_ch (tH_of a)))) /\
      (forall u v, adj X u v = adj c u v) in
    reads_c (gml_to_its (smart_to_gml r p eo true false explicit_h)) /\
    reads_c (gml_to_its (its_to_gml (rsmi_to_its r p eo false false) true false explicit_h)) /\
    reads_c (gml_to_its (its_to_gml (rsmi_to_its r p eo true false) true false explicit_h)).
Proof. exact three_routes_from_records. Qed.
Print Assumptions C10_three_routes_from_records.

(** GraphToMol.graph_to_mol DESCRIBED BY THE TWO LOOKUPS, for every molecule-shaped graph — any networkx graph (any node ids, any
    insertion and adjacency order) whose bonds join two different atoms and carry a scalar order: the atoms handed to RDKit are the
    node list in order (symbol, charge, map, explicit-H count from the dictionary), and between the atoms at positions i and j
    (positions = index in the node order) the bond is get_bond_type_from_order of the bond dictionary of the two nodes (a missing
    order counts as 1); no other bond.  The order in which edges_iter walks the bonds never matters. *)
Theorem C10_graph_to_mol_spec :
  forall G : gr, gwfb G = true ->
    (forall u v x, adj G u v = Some x -> u <> v /\ match e_ord x with Some (OP _ _) => False | _ => True end) ->
    exists bonds', graph_to_mol G = Some (map (fun p : N * natt => g2m_atom (snd p)) (gnodes G), bonds') /\
      (forall u v i j, index_of u (node_ids G) 0 = Some i -> index_of v (node_ids G) 0 = Some j ->
         bond_find i j bonds' =
         option_map (fun x => bond_type (match e_ord x with Some (OS z) => z | _ => 2 end)) (adj G u v)) /\
      (forall i j t, bond_find i j bonds' = Some t ->
         exists u v, index_of u (node_ids G) 0 = Some i /\ index_of v (node_ids G) 0 = Some j).
Proof. intros G Hw Hm. exact (graph_to_mol_spec G (gwfb_gwf G Hw) Hm). Qed.
Print Assumptions C10_graph_to_mol_spec.

(** Molecule -> graph -> molecule ON THE REACTION PATH (rsmi_to_graph: drop_non_aam = use_index_as_atom_map = True, node id = atom-map
    number).  For every fully mapped molecule record in the contract [rdmol_ok] the RWMol handed back to RDKit has exactly the atoms
    that were read, in order (symbol, charge, map, total H count as explicit no-implicit count), and between every pair of atom
    indices exactly the bond that was read — the statement of C10_mol_graph_roundtrip, for the flags the reaction routes use. *)
Theorem C10_mol_graph_roundtrip_mapped :
  forall m : rmol, rdmol_ok m = true -> forallb (fun a => negb (r_map a =? 0)) (fst m) = true ->
    exists bonds', graph_to_mol (mol_to_graph m true true) = Some (map atom_back (fst m), bonds') /\
                   forall i j, bond_find i j bonds' = option_map bond_type (bond_find i j (snd m)).
Proof. exact mol_graph_roundtrip_mapped. Qed.
Print Assumptions C10_mol_graph_roundtrip_mapped.

(** RENUMBERING THE ATOM MAPS IN THE REACTION STRING RENUMBERS THE RULE, from the RDKit records: mr, mp are the records of the two
    sides (contract [rdmol_ok], every atom mapped with a positive number); [remap sg m] is the record of the same molecule with every
    map number k written sg k (same atoms in the same order, same bonds — what substituting the numbers in the string gives), again
    in the contract.  If both reactions are atom-balanced, the rule written for the renumbered reaction reads back as the rule of the
    original with every atom n replaced by s n = sg n: same element, charges, (before, after) bonds; nothing else.  (Composes
    C10_rule_renumbering with proof/C10_RenumberRec.v remap_renamed: the graphs of a remapped record are a renamed pair.) *)
Theorem C10_rule_renumbering_records :
  forall (sg : Z -> Z) (mr mp : rmol) (eo eo' : list (N * N)) (explicit_h : bool),
    rdmol_ok mr = true -> rdmol_ok mp = true -> forallb pos_mapped (fst mr) = true -> forallb pos_mapped (fst mp) = true ->
    rdmol_ok (remap sg mr) = true -> rdmol_ok (remap sg mp) = true ->
    forallb pos_mapped (fst (remap sg mr)) = true -> forallb pos_mapped (fst (remap sg mp)) = true ->
    let r := mol_to_graph mr true true in let p := mol_to_graph mp true true in
    let r' := mol_to_graph (remap sg mr) true true in let p' := mol_to_graph (remap sg mp) true true in
    balanced r p = true -> eo_covers r p eo = true -> balanced r' p' = true -> eo_covers r' p' eo' = true ->
    let A := gml_to_its (smart_to_gml r p eo true false explicit_h) in
    let A' := gml_to_its (smart_to_gml r' p' eo' true false explicit_h) in
    let s := sN sg in
    (forall k, has_node A' k = true <-> exists n, has_node A n = true /\ k = s n) /\
    (forall n e q q', label A n = Some (gml_node n e q q') -> label A' (s n) = Some (gml_node (s n) e q q')) /\
    (forall u v, has_node A u = true -> has_node A v = true -> adj A' (s u) (s v) = adj A u v).
Proof. exact rule_renumbering_records. Qed.
Print Assumptions C10_rule_renumbering_records.

(** Reaction string side -> graph -> SMILES ON THE REACTION PATH under the RDKit contracts (read: the sanitised molecule of a fully
    mapped side of a reaction string is a record in [rdmol_ok]; write: rebuilding a molecule from the same atoms and the same bonds,
    in any bond order, writes the canonical SMILES): graph_to_smi of the graph rsmi_to_graph builds is the canonical SMILES of the
    side.  Both premises are about RDKit and are monitored (rdmol_ok per molecule; oracle clause smiles-roundtrip). *)
Theorem C10_rsmi_side_roundtrip_under_rdkit_contract :
  forall (Smi : Type) (read : Smi -> option rmol) (write : list watom * list (N * N * Z) -> option Smi) (canon : Smi -> Smi),
    (forall s m, read s = Some m -> rdmol_ok m = true /\ forallb (fun a => negb (r_map a =? 0)) (fst m) = true) ->
    (forall s m bonds', read s = Some m -> (forall i j, bond_find i j bonds' = bond_find i j (snd m)) ->
                        write (map atom_back (fst m), bonds') = Some (canon s)) ->
    forall s m, read s = Some m ->
      match graph_to_mol (mol_to_graph m true true) with Some w => write w | None => None end = Some (canon s).
Proof. exact rsmi_side_roundtrip_under_contract. Qed.
Print Assumptions C10_rsmi_side_roundtrip_under_rdkit_contract.

(** graph_to_mol depends only on the node order and the two lookups: two molecule-shaped networkx graphs with the same nodes in the
    same order, the same node dictionaries and the same bond dictionaries hand RDKit the same atoms and, between every pair of atom
    indices, the same bond — whatever their insertion / adjacency orders are. *)
Theorem C10_graph_to_mol_extensional :
  forall G1 G2 : gr, gwfb G1 = true -> gwfb G2 = true ->
    (forall u v x, adj G1 u v = Some x -> u <> v /\ match e_ord x with Some (OP _ _) => False | _ => True end) ->
    node_ids G1 = node_ids G2 -> (forall n, label G1 n = label G2 n) -> (forall u v, adj G1 u v = adj G2 u v) ->
    exists atoms b1 b2, graph_to_mol G1 = Some (atoms, b1) /\ graph_to_mol G2 = Some (atoms, b2) /\
                        forall i j, bond_find i j b1 = bond_find i j b2.
Proof. intros G1 G2 H1 H2. apply graph_to_mol_ext; apply gwfb_gwf; assumption. Qed.
Print Assumptions C10_graph_to_mol_extensional.

(** "Making hydrogens explicit and implicit again ... does not change the molecule", at the level of what is handed to RDKit: for
    every molecule graph (networkx graph without typesGH and without explicit hydrogens whose bonds join two different atoms and carry
    a scalar order) graph_to_mol of h_to_implicit (h_to_explicit g) and graph_to_mol of g succeed with the same atoms and the same bond
    between every pair of atom indices. *)
Theorem C10_h_roundtrip_molecule :
  forall g : gr, gwfb g = true -> no_H g = true -> no_tgh g = true ->
    (forall u v x, adj g u v = Some x -> u <> v /\ match e_ord x with Some (OP _ _) => False | _ => True end) ->
    exists atoms b1 b2, graph_to_mol (h_to_implicit (h_to_explicit g None false)) = Some (atoms, b1) /\
                        graph_to_mol g = Some (atoms, b2) /\ forall i j, bond_find i j b1 = bond_find i j b2.
Proof. exact h_roundtrip_molecule. Qed.
Print Assumptions C10_h_roundtrip_molecule.

(** THE THREE ROUTES THROUGH THE TEXT: what is written is a TEXT (rule name without a newline) and what gml_to_its reads is that text.
    For an atom-balanced pair of molecule graphs, each of the three rule texts — whenever its record is in the domain [rec_okb] of the
    text layer (labels without whitespace / quote, no line containing a section keyword: monitored on every its_to_gml export,
    text_theorem_domain = all exports of a run; the smart_to_gml record is the same record by C10_two_routes_string_its) — is read by GMLToNX.transform into an ITS that is exactly the reaction centre. *)
Theorem C10_three_routes_text :
  forall (r p : gr) (eo : list (N * N)) (explicit_h : bool) (name : str),
    mol_ok r = true -> mol_ok p = true -> balanced r p = true -> eo_covers r p eo = true -> ~ In 10%N name ->
    let c := get_rc (its_construct r p eo) in
    let reads_c := fun X : gr =>
      (forall n, has_node X n = has_node c n) /\
      (forall n a, label c n = Some a ->
         label X n = Some (gml_node n (tg_el (tG_of a)) (tg_ch (tG_of a)) (tg_ch (tH_of a)))) /\
      (forall u v, adj X u v = adj c u v) in
    let via_text := fun rec : grec => rec_okb rec = true ->
      exists X, option_map snd (text_to_nx (render name rec)) = Some X /\ reads_c X in
    via_text (smart_to_gml r p eo true false explicit_h) /\
    via_text (its_to_gml (rsmi_to_its r p eo false false) true false explicit_h) /\
    via_text (its_to_gml (rsmi_to_its r p eo true false) true false explicit_h).
Proof. exact three_routes_text. Qed.
Print Assumptions C10_three_routes_text.

(** THE POSITIVE SIDE of the known finding (C10_partial_mapping_id_collision_refuted): MolToGraph.transform(drop_non_aam=False,
    use_index_as_atom_map=ui) gives every atom the id [atom_id ui index atom] (its map number if ui and mapped, index + 1 otherwise);
    whenever these ids are pairwise distinct — always for ui=False, for fully mapped molecules with distinct maps, for unmapped
    molecules, and for a partially mapped molecule iff no unmapped atom's index + 1 is another atom's map number (the oracle's key
    condition) — the graph has exactly one node per atom, in atom order, with these ids: no atom is lost. *)
Theorem C10_index_ids_no_collision :
  forall (m : rmol) (ui : bool), nodupb (atom_ids ui 0 (fst m)) = true ->
    node_ids (mol_to_graph m false ui) = atom_ids ui 0 (fst m).
Proof. exact index_ids_no_collision. Qed.
Print Assumptions C10_index_ids_no_collision.

(** ... and for ANY node list (a subset of the atoms, a single reactive atom as the reactor does, a staged expansion, duplicates, ids
    that are not atoms): h_to_implicit (h_to_explicit g nodes) hands RDKit the same molecule as g. *)
Theorem C10_h_roundtrip_molecule_nodes :
  forall (g : gr) (nodes : option (list N)), gwfb g = true -> no_H g = true -> no_tgh g = true ->
    (forall u v x, adj g u v = Some x -> u <> v /\ match e_ord x with Some (OP _ _) => False | _ => True end) ->
    exists atoms b1 b2, graph_to_mol (h_to_implicit (h_to_explicit g nodes false)) = Some (atoms, b1) /\
                        graph_to_mol g = Some (atoms, b2) /\ forall i j, bond_find i j b1 = bond_find i j b2.
Proof. exact h_roundtrip_molecule_nodes. Qed.
Print Assumptions C10_h_roundtrip_molecule_nodes.

From SK Require Import proof.C10_HRound2 proof.C10_HRound2b.

(** THE HYDROGEN ROUND TRIP ON GRAPHS THAT CONTAIN HYDROGEN ATOMS.  C10_h_roundtrip* above need a graph without any hydrogen
    atom.  The clause only needs that no hydrogen atom is bonded to a non-hydrogen atom: molecular hydrogen, protons / hydrides and lone
    hydrogens may be there (h_to_implicit keeps them; SynKit commits 7497a0b / 3ba7a77).  Domain, written out: g is a networkx graph
    ([gwfb]) in which every hydrogen atom is BARE — it carries no implicit hydrogens of its own (hcount <= 0 or absent) and every
    neighbour of it is a hydrogen atom.  Then for ANY node list (None / [] = all atoms, a subset, duplicates, ids that are not atoms) and
    EITHER mode (its = False / True), g' = h_to_implicit (h_to_explicit g nodes its) satisfies
      - node_ids g' = node_ids g: the same nodes in the same order — every hydrogen h_to_explicit added (ids max id + 1 ...) is gone
        again, every bare hydrogen of g is still there; no renumbering remains;
      - at every node n of g the dictionary of g, except that at the atoms that were expanded the typesGH halves h_to_explicit lowered
        stay lowered ([h_restore_gen]: reactant half for its=False, both halves for its=True; a node without typesGH is restored
        exactly, and hcount itself IS restored);
      - between every pair of nodes the bond dictionary of g up to [fin_edge]: identical for its=False; for its=True the final
        normalize_edge_orders has turned a scalar order o into (o, o) and a missing standard_order into 0.
    Adjacency ORDER is not claimed.  Outside the domain (a hydrogen bonded to a heavy atom) the graph is not restored — the hydrogen is
    folded into its atom (proof/C10_HRound2.v h_roundtrip_bare_needed); the count and the heavy skeleton are (C10_h_total_*,
    C10_h_*_skeleton). *)
Theorem C10_h_roundtrip_bare_hydrogens :
  forall (g : gr) (nodes : option (list N)) (its : bool), gwfb g = true ->
    (forall n a, label g n = Some a -> el_is_H a = true ->
       dflt (a_hc a) 0 <= 0 /\ forall w, adj g n w <> None -> is_H g w = true) ->
    let g' := h_to_implicit (h_to_explicit g nodes its) in
    node_ids g' = node_ids g /\
    (forall n a, label g n = Some a ->
       label g' n = Some (if mem n (exp_nodes g nodes) then h_restore_gen its a else a)) /\
    (forall u v, adj g' u v = option_map (fin_edge its) (adj g u v)).
Proof. exact h_roundtrip_bare. Qed.
Print Assumptions C10_h_roundtrip_bare_hydrogens.

(** ... for molecule graphs (no typesGH) and its=False every node dictionary and every bond dictionary is restored exactly, and the
    molecule handed to RDKit (graph_to_mol) is the same: same atoms in order, same bond between every pair of atom indices. *)
Theorem C10_h_roundtrip_bare_hydrogens_mol :
  forall (g : gr) (nodes : option (list N)), gwfb g = true ->
    (forall n a, label g n = Some a -> el_is_H a = true ->
       dflt (a_hc a) 0 <= 0 /\ forall w, adj g n w <> None -> is_H g w = true) ->
    no_tgh g = true ->
    let g' := h_to_implicit (h_to_explicit g nodes false) in
    (node_ids g' = node_ids g /\ (forall n, label g' n = label g n) /\ (forall u v, adj g' u v = adj g u v)) /\
    ((forall u v x, adj g u v = Some x -> u <> v /\ match e_ord x with Some (OP _ _) => False | _ => True end) ->
     exists atoms b1 b2, graph_to_mol g' = Some (atoms, b1) /\ graph_to_mol g = Some (atoms, b2) /\
                         forall i j, bond_find i j b1 = bond_find i j b2).
Proof.
  intros g nodes Hw Hb Ht. split; [exact (h_roundtrip_bare_mol g nodes Hw Hb Ht)|exact (h_roundtrip_bare_molecule g nodes Hw Hb Ht)].
Qed.
Print Assumptions C10_h_roundtrip_bare_hydrogens_mol.
