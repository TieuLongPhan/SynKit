(** C15 — reaction-network store stays consistent under every history of edits.
    Statements only; the proofs point at the lemmas of proof/C15_*.v.  Where a statement spells out a
    definition of the proof files ([total] / [weight], [strip_keep], [shorter], the clauses of [Inv]), the
    lemma applies by unfolding that definition. *)
From stdpp Require Import gmap strings sets pretty sorting.
From SK Require Import model.C15_Model proof.C15_Proof.
From SK Require Import model.C15_Ext proof.C15_Ext proof.C15_ExtQ proof.C15_ExtP proof.C15_ExtS proof.C15_ExtL proof.C15_ExtM proof.C15_ExtH proof.C15_ExtEx.
From SK Require Import model.C15_View proof.C15_View.
From SK Require Import model.C16_Model model.C15_ViewObs proof.C15_ViewGraph.
From SK Require Import proof.C16_Defs model.C15_Repr proof.C15_Repr.
From SK Require Import model.C15_Side proof.C15_Side model.C15_Bulk proof.C15_Bulk.
From SK Require Import proof.C15_Species proof.C15_Prune.
Local Open Scope string_scope.

(** ** 1. The store invariant *)

(** What [Inv] says, written out: both hand-maintained indices list exactly the
    producing / consuming reactions, the species set is exactly the occurring
    species plus explicitly kept ones, labels only for present species, the
    insertion-order list is a duplicate-free enumeration of the keys, no stored
    reaction is empty or has an empty rule name. *)
Theorem C15_inv_meaning : forall s : net,
  Inv s <->
  (forall x e, e ∈ default ∅ (s_in s !! x) <-> exists rx, edges s !! e = Some rx /\ x ∈ dom (r_rhs rx)) /\
  (forall x e, e ∈ default ∅ (s_out s !! x) <-> exists rx, edges s !! e = Some rx /\ x ∈ dom (r_lhs rx)) /\
  (forall x, x ∈ species s <->
     (exists e rx, edges s !! e = Some rx /\ x ∈ rxn_species rx) \/ (x ∈ kept s /\ x ∈ species s)) /\
  dom (mol s) ⊆ species s /\
  NoDup (order s) /\ (forall e, e ∈ order s <-> is_Some (edges s !! e)) /\
  (forall e rx, edges s !! e = Some rx -> rxn_empty rx = false /\ r_rule rx <> "").
Proof. exact Inv_unfold. Qed.
Print Assumptions C15_inv_meaning.

Theorem C15_inv_init : Inv empty_net.
Proof. exact Inv_init. Qed.
Print Assumptions C15_inv_init.

(** every operation, every outcome (including the error outcomes), any world *)
Theorem C15_inv_step : forall (w : world) (o : op), Forall Inv w -> Forall Inv (step w o).1.
Proof. exact step_Inv. Qed.
Print Assumptions C15_inv_step.

Theorem C15_inv_reachable : forall (n : nat) (ops : list op),
  Forall Inv (fold_left (fun w o => (step w o).1) ops (init_world n)).
Proof. exact reachable_Inv. Qed.
Print Assumptions C15_inv_reachable.

(** copy / merge independence: an operation changes at most the network it
    targets ([OCopy i j]: only [j]; [OMerge i j]: only [i]) *)
Theorem C15_frame : forall (w : world) (o : op) (k : nat),
  k <> match o with
       | OAdd i _ _ _ _ | ORemoveRxn i _ | ORemoveSpecies i _ _ | OMerge i _ _
       | OAssignMol i _ _ | OSetMolMap i _ _ _ => i
       | OCopy _ j => j
       end ->
  getn (step w o).1 k = getn w k.
Proof. exact step_frame. Qed.
Print Assumptions C15_frame.

(** ** 2. No internal error; generated ids are fresh; the id search never gives up *)

(** the stale-index branch of remove_species is unreachable *)
Theorem C15_no_internal_error : forall (s : net) (x : string) (prune : bool),
  Inv s -> (remove_species s x prune).2 <> Some InternalError.
Proof. exact remove_species_no_internal_error. Qed.
Print Assumptions C15_no_internal_error.

(** a generated id never names a stored reaction ("no id refers to two reactions") *)
Theorem C15_fresh_ok : forall (s : net) (rule : string) (c : N) (e : string),
  next_id s rule = Some (c, e) -> edges s !! e = None.
Proof. exact next_id_fresh. Qed.
Print Assumptions C15_fresh_ok.

(** the loop bound [S (size (edges s))] of the model's id search suffices *)
Theorem C15_fresh_total : forall (s : net) (rule : string), next_id s rule <> None.
Proof. exact next_id_total. Qed.
Print Assumptions C15_fresh_total.

(** ** 3. Refinement to the abstract store  id ↦ reaction  (the [edges] map) *)

Theorem C15_add_spec : forall (s : net) (l r : side) (rule : string) (eid : option string)
                              (s' : net) (er : option err) (e : string),
  add s l r rule eid = (s', er, e) ->
  (forall e0, eid = Some e0 -> e = e0) /\
  match er with
  | None => edges s !! e = None /\ rxn_empty (Rxn (norm_rule rule) l r) = false /\
            edges s' = <[e := Rxn (norm_rule rule) l r]> (edges s) /\
            order s' = (order s ++ [e])%list
  | Some er' => edges s' = edges s /\ order s' = order s /\
            (er' = KeyError <-> exists e0, eid = Some e0 /\ is_Some (edges s !! e0)) /\
            (er' = InternalError <-> eid = None /\ next_id s (norm_rule rule) = None)
  end.
Proof. exact add_spec. Qed.
Print Assumptions C15_add_spec.

Theorem C15_remove_rxn_spec : forall (s : net) (e : string) (s' : net) (er : option err),
  remove_rxn s e = (s', er) ->
  (er = None /\ is_Some (edges s !! e) /\ edges s' = delete e (edges s) /\
   order s' = filter (fun e' => e' <> e) (order s)) \/
  (er = Some KeyError /\ edges s !! e = None /\ s' = s).
Proof. exact remove_rxn_spec. Qed.
Print Assumptions C15_remove_rxn_spec.

Theorem C15_remove_species_spec : forall (s : net) (x : string) (prune : bool) (s' : net) (er : option err),
  Inv s -> remove_species s x prune = (s', er) ->
  (er = None /\ x ∈ species s /\
   edges s' = omap (fun rx => let rx' := Rxn (r_rule rx) (delete x (r_lhs rx)) (delete x (r_rhs rx)) in
                              if rxn_empty rx' then None else Some rx') (edges s)) \/
  (er = Some KeyError /\ x ∉ species s /\ s' = s).
Proof. exact remove_species_spec. Qed.
Print Assumptions C15_remove_species_spec.

(** ... in particular every other species keeps its coefficients in every reaction it occurs in *)
Theorem C15_remove_species_others : forall (s : net) (x : string) (prune : bool) (s' : net)
                                           (e : string) (rx : rxn) (y : string),
  Inv s -> remove_species s x prune = (s', None) -> edges s !! e = Some rx -> y <> x ->
  y ∈ rxn_species rx ->
  exists rx', edges s' !! e = Some rx' /\ r_rule rx' = r_rule rx /\
    (forall z, z <> x -> r_lhs rx' !! z = r_lhs rx !! z /\ r_rhs rx' !! z = r_rhs rx !! z) /\
    r_lhs rx' !! x = None /\ r_rhs rx' !! x = None.
Proof. exact remove_species_others. Qed.
Print Assumptions C15_remove_species_others.

(** merge never fails when the other network is well-formed; own reactions are
    kept under their own ids; every reaction of the other network is stored,
    unchanged, under an id that was free; nothing else appears; without
    prefixing and without collisions the ids are kept *)
Theorem C15_merge_spec : forall (s o : net) (prefix : bool) (s' : net) (er : option err),
  Inv o -> merge s o prefix = (s', er) ->
  er = None /\ edges s ⊆ edges s' /\
  (forall e rx, edges o !! e = Some rx -> exists e', edges s' !! e' = Some rx /\ edges s !! e' = None) /\
  (forall e' rx, edges s' !! e' = Some rx -> edges s !! e' = Some rx \/ exists e, edges o !! e = Some rx) /\
  (prefix = false -> dom (edges s) ## dom (edges o) ->
   edges s' = edges s ∪ edges o /\ order s' = (order s ++ order o)%list).
Proof. exact merge_spec. Qed.
Print Assumptions C15_merge_spec.

(** ** 4. Incidence = products − reactants *)

Theorem C15_incidence : forall (s : net) (x e : string) (v : Z),
  (x, e, v) ∈ incidence s <->
  exists rx, edges s !! e = Some rx /\ x ∈ rxn_species rx /\
             v = (coef (r_rhs rx) x - coef (r_lhs rx) x)%Z.
Proof. exact incidence_spec. Qed.
Print Assumptions C15_incidence.

Theorem C15_incidence_functional : forall (s : net) (x e : string) (v1 v2 : Z),
  (x, e, v1) ∈ incidence s -> (x, e, v2) ∈ incidence s -> v1 = v2.
Proof. exact incidence_functional. Qed.
Print Assumptions C15_incidence_functional.

(** ** 5. History level: "every reaction that was added and not removed is still
    present under its own id with its own stoichiometry" — one step of any
    history keeps every stored reaction of every network unchanged under its id,
    unless the operation removes exactly that reaction, strips one of its
    species, or overwrites the whole network by a copy; together with
    [C15_add_spec] (a successful add stores exactly the given reaction under a
    free id) and [C15_inv_reachable] this is the history statement. *)
Theorem C15_stored_kept : forall (w : world) (o : op) (k : nat) (e : string) (rx : rxn),
  Forall Inv w -> edges (getn w k) !! e = Some rx ->
  ~ match o with
    | ORemoveRxn i e' => i = k /\ e' = e
    | ORemoveSpecies i x _ => i = k /\ x ∈ rxn_species rx
    | OCopy _ j => j = k
    | _ => False
    end ->
  edges (getn (step w o).1 k) !! e = Some rx.
Proof. exact step_stored_kept. Qed.
Print Assumptions C15_stored_kept.

(** a copy is the copied network (and by [C15_frame] later edits of the original do not reach it) *)
Theorem C15_copy_spec : forall (w : world) (i j : nat),
  j < length w -> getn (step w (OCopy i j)).1 j = getn w i.
Proof. exact copy_spec. Qed.
Print Assumptions C15_copy_spec.

(** ** 6. The whole public surface as a history language: [op2] / [step2]
    of model/C15_Ext.v — input forms of RXNSide.from_any, sides given as RXNSide
    OBJECTS (of another network, or caller-held and edited later), duck-typed
    merge, coefficient edits through a returned edge, and every read-only view. *)

(** RXNSide normalisation: the stored side is the positive integer multiset of
    the positive counts given per label (a bare label counts 1, an empty bare
    label is skipped); a label is a key exactly when its total is positive *)
Theorem C15_normalize_spec : forall (l : list item) (x : string),
  coef (normalize_items l) x =
  foldr (fun it acc =>
           (match it with
            | IPair s c => if decide (s = x) then Z.max 0 c else 0
            | ILabel s => if decide (s = x /\ s <> "") then 1 else 0
            end + acc)%Z) 0%Z l.
Proof. exact coef_normalize_items. Qed.
Print Assumptions C15_normalize_spec.

(** the pair form of the base language ([op]) is the all-pairs case *)
Theorem C15_normalize_pairs : forall l : list (string * Z),
  normalize l = normalize_items ((fun p => IPair p.1 p.2) <$> l).
Proof. exact normalize_as_items. Qed.
Print Assumptions C15_normalize_pairs.

(** the base language ([op]) is embedded unchanged *)
Theorem C15_step2_embeds : forall (w : world2) (o : op),
  nets (step2 w (OBase o)).1.1 = (step (nets w) o).1 /\ (step2 w (OBase o)).1.2 = (step (nets w) o).2 /\
  pool (step2 w (OBase o)).1.1 = pool w.
Proof. exact step2_base. Qed.
Print Assumptions C15_step2_embeds.

(** every operation of the extended language, every outcome, keeps the invariant *)
Theorem C15_inv_step2 : forall (w : world2) (o : op2),
  Forall Inv (nets w) -> Forall Inv (nets (step2 w o).1.1).
Proof. exact step2_Inv. Qed.
Print Assumptions C15_inv_step2.

Theorem C15_inv_reachable2 : forall (n k : nat) (ops : list op2),
  Forall Inv (nets (fold_left (fun w o => (step2 w o).1.1) ops (init_world2 n k))).
Proof. exact reachable2_Inv. Qed.
Print Assumptions C15_inv_reachable2.

(** an operation changes at most the network it targets; queries and edits of
    caller-held side objects change no network at all (the store owns copies of
    the sides it was given: [OAddFrom] / [OAddPool] store VALUES) *)
Theorem C15_frame2 : forall (w : world2) (o : op2) (k : nat),
  match o with
  | OBase (OAdd i _ _ _ _) | OBase (ORemoveRxn i _) | OBase (ORemoveSpecies i _ _) | OBase (OMerge i _ _)
  | OBase (OAssignMol i _ _) | OBase (OSetMolMap i _ _ _)
  | OAddItems i _ _ _ _ | OAddFrom i _ _ _ _ | OAddPool i _ _ _ _ | OMergeRaw i _ _
  | OSideSet i _ _ _ _ | OSideIncr i _ _ _ _ => Some i
  | OBase (OCopy _ j) => Some j
  | OPoolNew _ _ | OPoolEdit _ _ _ | OQuery _ _ | OPoolUpdate _ _ => None
  end <> Some k ->
  getn (nets (step2 w o).1.1) k = getn (nets w) k.
Proof. intros w o k H. apply step2_frame. destruct o as [[]| | | | | | | | | |]; exact H. Qed.
Print Assumptions C15_frame2.

(** queries never change the state (and never fail as mutators) *)
Theorem C15_query_pure : forall (w : world2) (i : nat) (q : query),
  (step2 w (OQuery i q)).1.1 = w /\ (step2 w (OQuery i q)).1.2 = None.
Proof. exact query_pure. Qed.
Print Assumptions C15_query_pure.

(** edits of caller-held side objects (before or after they were passed to
    add_rxn) change no network; RXNSide.update adds the normalised counts *)
Theorem C15_caller_objects : forall (w : world2) (k : nat) (x : string) (c : Z) (l : list item) (y : string),
  nets (step2 w (OPoolEdit k x c)).1.1 = nets w /\ nets (step2 w (OPoolNew k l)).1.1 = nets w /\
  nets (step2 w (OPoolUpdate k l)).1.1 = nets w /\
  coef (side_update (getp (pool w) k) l) y =
    (coef (getp (pool w) k) y +
     foldr (fun it acc =>
              (match it with
               | IPair s c => if decide (s = y) then Z.max 0 c else 0
               | ILabel s => if decide (s = y /\ s <> "") then 1 else 0
               end + acc)%Z) 0%Z l)%Z.
Proof.
  intros. split; [apply pool_edit_pure|]. split; [apply pool_new_pure|]. split; [apply pool_update_pure|].
  apply coef_side_update.
Qed.
Print Assumptions C15_caller_objects.

(** sides handed over as RXNSide objects are stored BY VALUE: a successful add
    stores, under a free id, exactly the sides the objects had at call time (and
    by [C15_frame2] / [C15_stored_kept2] / [C15_caller_objects] nothing done
    later to those objects or to the network they came from reaches it) *)
Theorem C15_added_objects_by_value :
  (forall (w : world2) (i kl kr : nat) (rule : string) (eid : option string),
     (i < length (nets w))%nat -> (step2 w (OAddPool i kl kr rule eid)).1.2 = None ->
     exists e, edges (getn (nets w) i) !! e = None /\
       edges (getn (nets (step2 w (OAddPool i kl kr rule eid)).1.1) i) !! e =
         Some (Rxn (norm_rule rule) (getp (pool w) kl) (getp (pool w) kr)) /\
       pool (step2 w (OAddPool i kl kr rule eid)).1.1 = pool w) /\
  (forall (w : world2) (i j : nat) (e0 rule : string) (eid : option string) (rx : rxn),
     (i < length (nets w))%nat -> edges (getn (nets w) j) !! e0 = Some rx ->
     (step2 w (OAddFrom i j e0 rule eid)).1.2 = None ->
     exists e, edges (getn (nets w) i) !! e = None /\
       edges (getn (nets (step2 w (OAddFrom i j e0 rule eid)).1.1) i) !! e =
         Some (Rxn (norm_rule rule) (r_lhs rx) (r_rhs rx))).
Proof. split; [exact add_pool_stores|exact add_from_stores]. Qed.
Print Assumptions C15_added_objects_by_value.

(** merge of a duck-typed other (plain sides, id possibly missing, raw rule): stops
    with ValueError at the first edge whose sides normalise to nothing (the edges
    before it stay merged) and otherwise succeeds — no other error; own reactions
    are kept; every raw edge is stored, normalised, under an id that was free;
    nothing else appears *)
Theorem C15_merge_raw_spec : forall (prefix : bool) (es : list raw_edge) (s s' : net) (er : option err),
  let raw := fun re : raw_edge => Rxn (norm_rule re.1.1.2) (normalize_items re.1.2) (normalize_items re.2) in
  merge_raw s es prefix = (s', er) ->
  (er = None \/ er = Some ValueError) /\
  (er = None <-> Forall (fun re => rxn_empty (raw re) = false) es) /\
  edges s ⊆ edges s' /\
  (er = None -> forall re, re ∈ es -> exists e', edges s' !! e' = Some (raw re) /\ edges s !! e' = None) /\
  (forall e' rx, edges s' !! e' = Some rx -> edges s !! e' = Some rx \/ exists re, re ∈ es /\ rx = raw re).
Proof. exact merge_raw_spec. Qed.
Print Assumptions C15_merge_raw_spec.

(** *** molecule labels: stored exactly for present species, never for reaction ids *)

Theorem C15_set_mol_map_spec : forall (s : net) (mp : list (string * string)) (strict clear : bool)
                                      (s' : net) (er : option err),
  set_mol_map s mp strict clear = (s', er) ->
  (er = Some KeyError /\ s' = s /\ strict = true /\ exists p, p ∈ mp /\ p.1 ∉ species s) \/
  (er = None /\ (strict = true -> forall p, p ∈ mp -> p.1 ∈ species s) /\
   (species s' = species s /\ edges s' = edges s /\ order s' = order s /\ s_in s' = s_in s /\
    s_out s' = s_out s /\ counters s' = counters s /\ kept s' = kept s) /\
   mol s' = list_to_map (reverse (filter (fun p => p.1 ∈ species s) mp)) ∪ (if clear then ∅ else mol s)).
Proof. exact set_mol_map_spec. Qed.
Print Assumptions C15_set_mol_map_spec.

(** a name that is not a present species — e.g. the id of a stored reaction, or a
    species pruned earlier — gets no label, and strict=True rejects the table *)
Theorem C15_set_mol_map_absent : forall (s : net) (mp : list (string * string)) (strict clear : bool)
                                        (s' : net) (er : option err) (x : string),
  Inv s -> set_mol_map s mp strict clear = (s', er) -> x ∉ species s ->
  mol s' !! x = None /\ (strict = true -> x ∈ mp.*1 -> er = Some KeyError).
Proof. exact set_mol_map_absent. Qed.
Print Assumptions C15_set_mol_map_absent.

(** a present species gets the LAST label the table gives for it, whatever the
    label is (no truthiness test) *)
Theorem C15_set_mol_map_present : forall (s : net) (mp : list (string * string)) (strict clear : bool)
                                         (s' : net) (x m : string),
  set_mol_map s mp strict clear = (s', None) -> x ∈ species s ->
  (exists l1 l2, mp = (l1 ++ (x, m) :: l2)%list /\ x ∉ l2.*1) -> mol s' !! x = Some m.
Proof. exact set_mol_map_present. Qed.
Print Assumptions C15_set_mol_map_present.

Theorem C15_assign_mol_spec : forall (s : net) (x m : string) (s' : net) (er : option err),
  assign_mol s x m = (s', er) ->
  (er = None /\ x ∈ species s /\
   (species s' = species s /\ edges s' = edges s /\ order s' = order s /\ s_in s' = s_in s /\
    s_out s' = s_out s /\ counters s' = counters s /\ kept s' = kept s) /\
   mol s' = <[ x := m ]> (mol s)) \/
  (er = Some KeyError /\ x ∉ species s /\ s' = s).
Proof. exact assign_mol_spec. Qed.
Print Assumptions C15_assign_mol_spec.

Theorem C15_get_mol_spec : forall (s : net) (x : string),
  match get_mol s x with
  | inr m => x ∈ species s /\ mol s !! x = Some m
  | inl QKeyError => x ∉ species s
  | inl QNoLabel => x ∈ species s /\ mol s !! x = None
  | inl QInternal => False
  end.
Proof. exact get_mol_spec. Qed.
Print Assumptions C15_get_mol_spec.

Theorem C15_get_after_assign : forall (s : net) (x m : string) (s' : net),
  assign_mol s x m = (s', None) -> get_mol s' x = inr m.
Proof. exact get_after_assign. Qed.
Print Assumptions C15_get_after_assign.

(** history level for labels: whatever the operation (base or extended language),
    unless it is a label operation on that species / table or a copy onto that
    network, a species that is still present keeps exactly the label it had
    (or none), and a name that is not present has none: a label is dropped only
    together with its species and never appears or changes as a side effect *)
Theorem C15_labels_kept : forall (w : world2) (o : op2) (k : nat) (x : string),
  Forall Inv (nets w) ->
  ~ match o with
    | OBase (OAssignMol i x' _) => i = k /\ x' = x
    | OBase (OSetMolMap i _ _ _) => i = k
    | OBase (OCopy _ j) => j = k
    | _ => False
    end ->
  mol (getn (nets (step2 w o).1.1) k) !! x =
    if decide (x ∈ species (getn (nets (step2 w o).1.1) k)) then mol (getn (nets w) k) !! x else None.
Proof.
  intros w o k x Hw Hn. apply step2_labels_kept; [exact Hw|].
  intros Hd. apply Hn. destruct o as [[]| | | | | | | | | |]; exact Hd.
Qed.
Print Assumptions C15_labels_kept.

(** *** caller-side coefficient edits through a returned edge *)

Theorem C15_coef_edit_spec : forall (sd : side) (x : string) (c b : Z) (y : string),
  dom (side_set_g sd x c) = dom sd /\ dom (side_incr_g sd x b) = dom sd /\
  coef (side_set_g sd x c) y = (if decide (y = x /\ x ∈ dom sd /\ (0 < c)%Z) then c else coef sd y) /\
  coef (side_incr_g sd x b) y =
    (if decide (y = x /\ x ∈ dom sd /\ (0 < coef sd x + b)%Z) then (coef sd x + b)%Z else coef sd y).
Proof.
  intros. split; [apply side_set_g_dom|]. split; [apply side_incr_g_dom|].
  split; [apply coef_side_set_g|apply coef_side_incr_g].
Qed.
Print Assumptions C15_coef_edit_spec.

Theorem C15_edit_side_spec : forall (s : net) (e : string) (lhs : bool) (f : side -> side) (s' : net) (er : option err),
  edit_side s e lhs f = (s', er) ->
  (er = Some KeyError /\ edges s !! e = None /\ s' = s) \/
  (er = None /\ exists rx, edges s !! e = Some rx /\
     edges s' = <[ e := if lhs then Rxn (r_rule rx) (f (r_lhs rx)) (r_rhs rx)
                        else Rxn (r_rule rx) (r_lhs rx) (f (r_rhs rx)) ]> (edges s) /\
     species s' = species s /\ order s' = order s /\ s_in s' = s_in s /\ s_out s' = s_out s /\
     mol s' = mol s /\ kept s' = kept s /\ counters s' = counters s).
Proof. exact edit_side_spec. Qed.
Print Assumptions C15_edit_side_spec.

(** history level for the extended language: a stored reaction stays under its id,
    unchanged, unless the operation removes it, strips one of its species,
    overwrites the network by a copy, or is a coefficient edit of exactly it *)
Theorem C15_stored_kept2 : forall (w : world2) (o : op2) (k : nat) (e : string) (rx : rxn),
  Forall Inv (nets w) -> edges (getn (nets w) k) !! e = Some rx ->
  ~ match o with
    | OBase (ORemoveRxn i e') => i = k /\ e' = e
    | OBase (ORemoveSpecies i x _) => i = k /\ x ∈ rxn_species rx
    | OBase (OCopy _ j) => j = k
    | OSideSet i e' _ _ _ | OSideIncr i e' _ _ _ => i = k /\ e' = e
    | _ => False
    end ->
  edges (getn (nets (step2 w o).1.1) k) !! e = Some rx.
Proof.
  intros w o k e rx Hw He Hn. apply step2_stored_kept; [exact Hw|exact He|].
  intros Hd. apply Hn. destruct o as [[]| | | | | | | | | |]; exact Hd.
Qed.
Print Assumptions C15_stored_kept2.

(** *** read-only views *)

(** species_list / the two order lists of incidence_matrix: Python's sorted() *)
Theorem C15_sorted_views : forall s : net,
  (StronglySorted (fun a b => String.leb a b = true) (species_list s) /\ NoDup (species_list s) /\
   forall x, x ∈ species_list s <-> x ∈ species s) /\
  (StronglySorted (fun a b => String.leb a b = true) (edge_ids_sorted s) /\ NoDup (edge_ids_sorted s) /\
   forall e, e ∈ edge_ids_sorted s <-> is_Some (edges s !! e)).
Proof. intros s. split; [exact (species_list_spec s)|exact (edge_ids_sorted_spec s)]. Qed.
Print Assumptions C15_sorted_views.

(** __len__, iteration / edge_list, __contains__ *)
Theorem C15_len_iter_contains : forall (s : net),
  Inv s ->
  len s = length (order s) /\
  (edge_seq s).*1 = order s /\ list_to_map (edge_seq s) = edges s /\
  forall x, contains s x = true <-> x ∈ species s \/ is_Some (edges s !! x).
Proof.
  intros s HI. split; [exact (len_spec s HI)|]. destruct (iter_spec s HI) as [H1 H2].
  split; [exact H1|]. split; [exact H2|]. intros x. exact (contains_spec s x).
Qed.
Print Assumptions C15_len_iter_contains.

(** neighbors: KeyError exactly for absent species, never an internal KeyError
    from a stale index; the answer is the set of products of the consuming reactions *)
Theorem C15_neighbors_spec : forall (s : net) (x : string),
  Inv s ->
  match neighbors s x with
  | inr N => x ∈ species s /\
             forall y, y ∈ N <-> exists e rx, edges s !! e = Some rx /\ x ∈ dom (r_lhs rx) /\ y ∈ dom (r_rhs rx)
  | inl QKeyError => x ∉ species s
  | inl _ => False
  end.
Proof. exact neighbors_spec. Qed.
Print Assumptions C15_neighbors_spec.

(** paths (soundness): every reported path starts at the source, ends at the
    target, visits no species twice, moves along neighbours, and has at most
    max_hops edges *)
Theorem C15_paths_sound : forall (s : net) (a b : string) (h : Z) (m : option Z) (ps : list (list string)) (p : list string),
  Inv s -> paths s a b h m = inr ps -> p ∈ ps ->
  exists rp, p = reverse rp /\ rpath s a rp /\ head rp = Some b /\ (Z.of_nat (length p) <= h + 1)%Z.
Proof. exact paths_sound. Qed.
Print Assumptions C15_paths_sound.

(** paths (completeness): without max_paths every such chain is reported.
    (Order and the max_paths cut: [C15_paths_order], [C15_paths_max_paths].) *)
Theorem C15_paths_complete : forall (s : net) (a b : string) (h : Z) (ps : list (list string)) (rp : list string),
  Inv s -> paths s a b h None = inr ps ->
  rpath s a rp -> head rp = Some b -> (Z.of_nat (length rp) <= h + 1)%Z -> reverse rp ∈ ps.
Proof. exact paths_complete. Qed.
Print Assumptions C15_paths_complete.

(** breadth-first order: the answers come shortest first *)
Theorem C15_paths_shortest_first : forall (s : net) (a b : string) (h : Z) (ps : list (list string)),
  Inv s -> paths s a b h None = inr ps ->
  StronglySorted (fun p q => (length p <= length q)%nat) ps.
Proof. exact paths_sorted. Qed.
Print Assumptions C15_paths_shortest_first.

(** the order of the answers: shorter first; equal length: lexicographic by
    species label (the first position where two answers differ decides) *)
Theorem C15_paths_order : forall (s : net) (a b : string) (h : Z) (ps : list (list string)),
  Inv s -> paths s a b h None = inr ps ->
  StronglySorted (fun p q => (length p < length q)%nat \/
                             (length p = length q /\
                              exists pre x y p' q', p = (pre ++ x :: p')%list /\ q = (pre ++ y :: q')%list /\
                                                    String.leb x y = true /\ x <> y)) ps.
Proof. exact paths_order_forward. Qed.
Print Assumptions C15_paths_order.

(** max_paths only cuts the answer list to its first max(1, max_paths) entries *)
Theorem C15_paths_max_paths : forall (s : net) (a b : string) (h m : Z) (ps : list (list string)),
  paths s a b h None = inr ps -> paths s a b h (Some m) = inr (take (Z.to_nat (Z.max 1 m)) ps).
Proof. exact paths_max_paths. Qed.
Print Assumptions C15_paths_max_paths.

(** what [rpath] says: built from [src] by steps to a neighbour not yet visited *)
Theorem C15_rpath_meaning : forall (s : net) (src : string) (rp : list string),
  rpath s src rp ->
  NoDup rp /\ last rp = Some src /\
  forall i n prev, rp !! i = Some n -> rp !! S i = Some prev ->
    exists e rx, edges s !! e = Some rx /\ prev ∈ dom (r_lhs rx) /\ n ∈ dom (r_rhs rx).
Proof. exact rpath_meaning. Qed.
Print Assumptions C15_rpath_meaning.

(** incidence_matrix(sparse=False): never fails; entry (x, e) = products − reactants;
    it agrees with the sparse mapping and is 0 wherever the sparse mapping has no key *)
Theorem C15_dense_spec : forall (s : net),
  Inv s ->
  exists m, dense s = Some m /\ length m = length (species_list s) /\
  (forall i j x e, species_list s !! i = Some x -> edge_ids_sorted s !! j = Some e ->
     m !! i ≫= (.!! j) = Some (dense_entry s x e)) /\
  (forall x e rx, edges s !! e = Some rx -> dense_entry s x e = (coef (r_rhs rx) x - coef (r_lhs rx) x)%Z) /\
  (forall x e v, (x, e, v) ∈ incidence s -> dense_entry s x e = v) /\
  (forall x e, (forall v, (x, e, v) ∉ incidence s) -> dense_entry s x e = 0%Z).
Proof. exact dense_full. Qed.
Print Assumptions C15_dense_spec.

(** *** whole histories *)

(** a stored reaction survives, under its id and with its stoichiometry, every
    continuation of the history that does not remove it, strip one of its
    species, overwrite its network by a copy, or coefficient-edit it *)
Theorem C15_history_stored_kept : forall (ops : list op2) (w : world2) (k : nat) (e : string) (rx : rxn),
  Forall Inv (nets w) -> edges (getn (nets w) k) !! e = Some rx ->
  Forall (fun o => ~ match o with
                     | OBase (ORemoveRxn i e') => i = k /\ e' = e
                     | OBase (ORemoveSpecies i x _) => i = k /\ x ∈ rxn_species rx
                     | OBase (OCopy _ j) => j = k
                     | OSideSet i e' _ _ _ | OSideIncr i e' _ _ _ => i = k /\ e' = e
                     | _ => False
                     end) ops ->
  edges (getn (nets (fold_left (fun w o => (step2 w o).1.1) ops w)) k) !! e = Some rx.
Proof.
  intros ops w k e rx Hw He Hall. apply run2_stored_kept; [exact Hw|exact He|].
  eapply Forall_impl; [exact Hall|]. intros o Hn Hd. apply Hn. destruct o as [[]| | | | | | | | | |]; exact Hd.
Qed.
Print Assumptions C15_history_stored_kept.

(** the property's first clause, literally: after ANY history [pre] from empty
    networks, a successful add (any input form, generated or caller-chosen id)
    hands back the id [e] under which the reaction is stored — the caller's id if
    one was given, an id that named no reaction otherwise — and after ANY
    continuation [post] that does not name that reaction it is still stored
    under [e] with exactly the normalised stoichiometry it was given *)
Theorem C15_history_added_kept : forall (n p : nat) (pre post : list op2) (i : nat) (l r : list item)
                                        (rule : string) (eid : option string),
  (i < n)%nat ->
  (step2 (fold_left (fun w o => (step2 w o).1.1) pre (init_world2 n p)) (OAddItems i l r rule eid)).1.2 = None ->
  exists e, (forall e0, eid = Some e0 -> e = e0) /\
    (step2 (fold_left (fun w o => (step2 w o).1.1) pre (init_world2 n p)) (OAddItems i l r rule eid)).2 = Tok.tstr e /\
    edges (getn (nets (fold_left (fun w o => (step2 w o).1.1) pre (init_world2 n p))) i) !! e = None /\
    (Forall (fun o => ~ match o with
                       | OBase (ORemoveRxn i' e') => i' = i /\ e' = e
                       | OBase (ORemoveSpecies i' x _) =>
                           i' = i /\ x ∈ rxn_species (Rxn (norm_rule rule) (normalize_items l) (normalize_items r))
                       | OBase (OCopy _ j) => j = i
                       | OSideSet i' e' _ _ _ | OSideIncr i' e' _ _ _ => i' = i /\ e' = e
                       | _ => False
                       end) post ->
     edges (getn (nets (fold_left (fun w o => (step2 w o).1.1) post
              (step2 (fold_left (fun w o => (step2 w o).1.1) pre (init_world2 n p)) (OAddItems i l r rule eid)).1.1)) i) !! e
     = Some (Rxn (norm_rule rule) (normalize_items l) (normalize_items r))).
Proof.
  intros n p pre post i l r rule eid Hi Her.
  destruct (history_added_kept n p pre post i l r rule eid Hi Her) as (e & H1 & H2 & H3 & H4).
  exists e. split; [exact H1|]. split; [exact H2|]. split; [exact H3|].
  intros Hall. apply H4. eapply Forall_impl; [exact Hall|].
  intros o Hn Hd. apply Hn. destruct o as [[]| | | | | | | | | |]; exact Hd.
Qed.
Print Assumptions C15_history_added_kept.

(** ** 7. Cached graph views of a network — _CRNGraphBackend.G (the base of
    CRNCanonicalizer / CRNAutomorphism / WLCanonicalizer), model/C15_View.v:
    [op3]/[step3] = the store language + backend objects that hold a reference to a
    network and a cached view with the network's version count at build time. *)

(** what [VInv] says: a cached view never carries a version from the future, and
    one whose version is the network's current version was built from a store
    with exactly the current content (everything but the id counters) *)
Theorem C15_view_inv_meaning : forall w : world3,
  VInv w <->
  length (vers w) = length (nets (w2 w)) /\
  forall b be v snap, backends w !! b = Some be -> b_cache be = Some (v, snap) ->
    (v <= getv (vers w) (b_net be))%N /\
    (v = getv (vers w) (b_net be) ->
     let cur := getn (nets (w2 w)) (b_net be) in
     species snap = species cur /\ edges snap = edges cur /\ order snap = order cur /\ s_in snap = s_in cur /\
     s_out snap = s_out cur /\ mol snap = mol cur /\ kept snap = kept cur).
Proof. exact VInv_unfold. Qed.
Print Assumptions C15_view_inv_meaning.

(** every op that goes through the methods of the store — every [op2] except the
    caller-side coefficient edits of a returned side — and every backend op keeps it *)
Theorem C15_view_inv_step : forall (w : world3) (o : op3),
  match o with O2 (OSideSet _ _ _ _ _) | O2 (OSideIncr _ _ _ _ _) => False | _ => True end ->
  VInv w -> VInv (step3 w o).1.1.
Proof. exact step3_VInv. Qed.
Print Assumptions C15_view_inv_step.

(** the store part of [step3] IS the [op2] language; reading a view never changes the store *)
Theorem C15_view_store : forall (w : world3) (o2 : op2) (b : nat),
  (w2 (step3 w (O2 o2)).1.1 = (step2 (w2 w) o2).1.1 /\ (step3 w (O2 o2)).1.2 = (step2 (w2 w) o2).1.2 /\
   (step3 w (O2 o2)).2 = (step2 (w2 w) o2).2) /\
  w2 (step3 w (OView b)).1.1 = w2 w /\ w2 (step3 w (OViewType b)).1.1 = w2 w.
Proof. intros w o2 b. split; [exact (step3_store w o2)|exact (step3_view_store w b)]. Qed.
Print Assumptions C15_view_store.

(** C15_view_current: after ANY history of such ops from empty networks, whatever
    backends were created when, the graph a backend hands out on access was built
    from a store that agrees with the network AS IT IS NOW on everything the export
    with the backend's options reads (species; reactions with rule and sides —
    coefficients where exported; two-sided reactions only for the species graph);
    the answer of the model's [OView] says so ([tbool true]) *)
Theorem C15_view_current : forall (n k nb : nat) (ops : list op3) (b : nat),
  Forall (fun o => match o with O2 (OSideSet _ _ _ _ _) | O2 (OSideIncr _ _ _ _ _) => False | _ => True end) ops ->
  let w := fold_left (fun w o => (step3 w o).1.1) ops (init_world3 n k nb) in
  let be := getb (backends w) b in
  vproj (b_opts be) (access w b).2 = vproj (b_opts be) (getn (nets (w2 w)) (b_net be)) /\
  (step3 w (OView b)).2 = Tok.L [Tok.tstr (graph_type (b_opts be)); Tok.tbool (access w b).1.2; Tok.tbool true].
Proof.
  intros n k nb ops b Hs w be. apply view_current_inv. apply run3_VInv; [exact Hs|apply VInv_init].
Qed.
Print Assumptions C15_view_current.

(** the clause "… after every operation of the extended language" fails for the
    caller-side coefficient edit: the version count cannot see an edit made
    through a returned edge object; a view that reads coefficients (species
    graph) is then served stale from the cache, one that does not (bipartite
    without stoichiometry) is unaffected.  Known finding C15:view-stale-after-inplace-coefficient-edit. *)
Theorem C15_view_coef_edit_refuted :
  exists (ops : list op3) (b : nat),
    (access (fold_left (fun w o => (step3 w o).1.1) ops (init_world3 1 0 2)) b).1.2 = false /\
    vproj (b_opts (getb (backends (fold_left (fun w o => (step3 w o).1.1) ops (init_world3 1 0 2))) b))
          (access (fold_left (fun w o => (step3 w o).1.1) ops (init_world3 1 0 2)) b).2 <>
    vproj (b_opts (getb (backends (fold_left (fun w o => (step3 w o).1.1) ops (init_world3 1 0 2))) b))
          (getn (nets (w2 (fold_left (fun w o => (step3 w o).1.1) ops (init_world3 1 0 2))))
                (b_net (getb (backends (fold_left (fun w o => (step3 w o).1.1) ops (init_world3 1 0 2))) b))).
Proof. exact view_coef_edit_refuted. Qed.
Print Assumptions C15_view_coef_edit_refuted.

(** ** 8. The cached view IS the export of the current network.
    [C15_view_current] speaks through the abstraction [vproj]; here the snapshot is pushed through the Gallina models of the
    export functions themselves (C16: model/C16_Model.v — [backend_bipartite] = hypergraph_to_bipartite with the backend's
    flags, [hypergraph_to_species_graph]), i.e. through exactly what _CRNGraphBackend._build_graph calls: after ANY history
    of store-method calls and backend operations from empty networks, the graph a backend hands out on access equals the
    graph exported from the network as it is now — for the bipartite view (string or integer ids, with or without
    coefficients) and for the species graph. *)
Theorem C15_view_graph_current : forall (n k nb : nat) (ops : list op3) (b : nat),
  Forall (fun o => match o with O2 (OSideSet _ _ _ _ _) | O2 (OSideIncr _ _ _ _ _) => False | _ => True end) ops ->
  let w := fold_left (fun w o => (step3 w o).1.1) ops (init_world3 n k nb) in
  let be := getb (backends w) b in
  let snap := (access w b).2 in
  let cur := getn (nets (w2 w)) (b_net be) in
  (if include_rule (b_opts be)
   then inl (backend_bipartite (integer_ids (b_opts be)) (include_stoich (b_opts be)) snap)
   else inr (hypergraph_to_species_graph false snap) : bgraph + sgraph)
  = (if include_rule (b_opts be)
     then inl (backend_bipartite (integer_ids (b_opts be)) (include_stoich (b_opts be)) cur)
     else inr (hypergraph_to_species_graph false cur)).
Proof. exact view_graph_current. Qed.
Print Assumptions C15_view_graph_current.

(** the runner the correspondence evaluates ([run3g], model/C15_ViewObs.v) steps with [step3g]: the worlds and errors of
    [step3], and for a view access the answer of [step3] followed by the graph built from the cached snapshot
    ([tview (view_graph …)]: every node, arc and attribute — compared with the graph object the implementation hands out) *)
Theorem C15_view_observed : forall (w : world3) (o : op3),
  (step3g w o).1 = (step3 w o).1 /\
  match o with
  | OView b => (step3g w o).2 = Tok.L [(step3 w o).2;
                 tview (if include_rule (b_opts (getb (backends w) b))
                        then inl (backend_bipartite (integer_ids (b_opts (getb (backends w) b))) (include_stoich (b_opts (getb (backends w) b))) (access w b).2)
                        else inr (hypergraph_to_species_graph false (access w b).2))]
  | _ => (step3g w o).2 = (step3 w o).2
  end.
Proof. exact step3g_spec. Qed.
Print Assumptions C15_view_observed.

(** EVERY store operation either counts itself ([bumps]: which network's `_version` moves — add after the edge is stored,
    remove_rxn after the pop, remove_species / assign_mol / set_mol_map after their KeyError test, WHATEVER their options, merge
    through add_rxn) or leaves every export of every network unchanged, for every flag combination of the bipartite export and
    for the species graph.  Hence a cached view whose version is current is the current export (C15_view_graph_current).
    Excluded: the copy into a slot (the slot is re-bound to a new object whose backends are re-created) and the caller-side
    coefficient edits (the known finding).  remove_species counts itself on both the prune_orphans=True and the prune_orphans=False path. *)
Theorem C15_version_or_unchanged : forall (w : world2) (o : op2),
  match o with OSideSet _ _ _ _ _ | OSideIncr _ _ _ _ _ => False | _ => True end ->
  (forall i j, o <> OBase (OCopy i j)) ->
  bumps w o (step2 w o).1.1 (step2 w o).1.2 = None ->
  forall (k : nat) (fl : bflags) (b : bool),
    hypergraph_to_bipartite fl (getn (nets (step2 w o).1.1) k) = hypergraph_to_bipartite fl (getn (nets w) k) /\
    hypergraph_to_species_graph b (getn (nets (step2 w o).1.1) k) = hypergraph_to_species_graph b (getn (nets w) k).
Proof. exact version_or_unchanged. Qed.
Print Assumptions C15_version_or_unchanged.

(** the cache works: right after an access of an existing backend, a second access hands out the same graph WITHOUT
    rebuilding and changes nothing (and so on until a store method is called on the network: [C15_view_store], [bumps]) *)
Theorem C15_view_cached : forall (w : world3) (b : nat), (b < length (backends w))%nat ->
  (access (access w b).1.1 b).1.2 = false /\ (access (access w b).1.1 b).2 = (access w b).2 /\
  (access (access w b).1.1 b).1.1 = (access w b).1.1.
Proof. exact access_cached. Qed.
Print Assumptions C15_view_cached.

(** the exports never read the per-rule id counters (the only part of the store a snapshot with the current version may
    differ in, [C15_view_inv_meaning]): same content, same graphs — for EVERY flag combination of the bipartite export *)
Theorem C15_exports_ignore_counters : forall (fl : bflags) (b : bool) (s s' : net),
  species s' = species s -> edges s' = edges s -> order s' = order s -> s_in s' = s_in s -> s_out s' = s_out s ->
  mol s' = mol s -> kept s' = kept s ->
  hypergraph_to_bipartite fl s' = hypergraph_to_bipartite fl s /\
  hypergraph_to_species_graph b s' = hypergraph_to_species_graph b s.
Proof. exact exports_ignore_counters. Qed.
Print Assumptions C15_exports_ignore_counters.

(** ** 9. The three __repr__ methods (model/C15_Repr.v): RXNSide, HyperEdge, CRNHyperGraph.
    [repr_net s] = the lines [repr_lines s] joined by newlines; the reaction lines are [repr_edge] of [sorted_edges s]
    (sorted(edge_list(), key=_edge_key): key = (id without its digits, int(the digits)), Python's stable sort). *)

(** repr(side) is a faithful rendering: RXNSide.from_str reads it back, for every side whose labels are in the label domain of
    the text format ([side_labels_ok]: a letter, then anything but white space and + * | >; the known limit of the format,
    finding C16:strings-label-domain) — RXNSide.__repr__ IS the side printer of the reaction-string export *)
Theorem C15_repr_side_parses : forall (sd : side), side_labels_ok sd = true -> from_str (repr_side sd) = Some sd.
Proof. exact repr_side_parses. Qed.
Print Assumptions C15_repr_side_parses.

(** the reaction lines: a permutation of the stored reactions in insertion order (nothing lost, nothing twice), sorted by the
    key, and — stability — reactions with the same key (e.g. ids "r_1" and "r1_") stay in insertion order *)
Theorem C15_repr_order : forall (s : net),
  sorted_edges s ≡ₚ edge_seq s /\
  StronglySorted (fun p q => ekey_le (edge_key p.1) (edge_key q.1) = true) (sorted_edges s) /\
  forall k, filter (fun p => edge_key p.1 = k) (sorted_edges s) = filter (fun p => edge_key p.1 = k) (edge_seq s).
Proof. exact sorted_edges_spec. Qed.
Print Assumptions C15_repr_order.

(** under the store invariant every stored reaction has exactly one line, and no line shows anything else *)
Theorem C15_repr_complete : forall (s : net), Inv s ->
  (forall e rx, (e, rx) ∈ sorted_edges s <-> edges s !! e = Some rx) /\ NoDup (sorted_edges s).*1.
Proof. exact sorted_edges_stored. Qed.
Print Assumptions C15_repr_complete.

(** the key order is a total preorder that identifies only equal keys (so "sorted" above is meaningful) *)
Theorem C15_repr_key_order : forall a b c : string * N,
  (ekey_le a b = true \/ ekey_le b a = true) /\
  (ekey_le a b = true -> ekey_le b c = true -> ekey_le a c = true) /\
  (ekey_le a b = true -> ekey_le b a = true -> a = b).
Proof. exact (fun a b c => conj (ekey_le_total a b) (conj (ekey_le_trans a b c) (ekey_le_antisym a b))). Qed.
Print Assumptions C15_repr_key_order.

(** shape of the text: header, the reaction lines, then the species line and — exactly when labels exist — the label line *)
Theorem C15_repr_shape : forall (s : net),
  exists tail, repr_lines s = "CRNHyperGraph:" :: ((fun p => "  " +:+ repr_edge p.1 p.2) <$> sorted_edges s) ++ tail /\
               length tail = (if decide (mol s = ∅) then 1 else 2)%nat.
Proof. exact repr_lines_shape. Qed.
Print Assumptions C15_repr_shape.

(** ** 10. The mapping API of RXNSide on caller-held objects (model/C15_Side.v): what every mutator does to the
    coefficient function [coef sd y] (0 = absent).  Sides are maps to POSITIVE counts in the model, so "a side is always a positive
    integer multiset" holds by construction; the correspondence and the oracle check it on the implementation after every op. *)
Theorem C15_side_ops_spec : forall (p : list side) (o : sop) (k : nat), (k < length p)%nat ->
  let sd := getp p k in let sd' := getp (sstep p o).1 k in
  match o with
  | SNew k0 l => k0 = k -> forall y, coef sd' y = total y l
  | SSet k0 x c => k0 = k -> forall y, coef sd' y = if decide (y = x) then Z.max 0 c else coef sd y
  | SIncr k0 x b => k0 = k -> forall y, coef sd' y = if decide (y = x) then Z.max 0 (coef sd x + b) else coef sd y
  | SPop k0 x d => k0 = k -> (forall y, coef sd' y = if decide (y = x) then 0%Z else coef sd y) /\
                            (sstep p o).2 = topz (match sd !! x with Some c => Some (Z.pos c) | None => d end)
  | SUpdate k0 l => k0 = k -> forall y, coef sd' y = (coef sd y + total y l)%Z
  | SCopy k0 k' => k' = k -> sd' = getp p k0
  | SQuery _ _ => sd' = sd
  end.
Proof. exact sstep_spec. Qed.
Print Assumptions C15_side_ops_spec.

(** an operation on one side object changes no other (copy() shares nothing: later edits of the original never reach the copy) *)
Theorem C15_side_frame : forall (p : list side) (o : sop) (j : nat),
  match o with SNew k _ | SSet k _ _ | SIncr k _ _ | SPop k _ _ | SUpdate k _ => j <> k | SCopy _ k' => j <> k' | SQuery _ _ => True end ->
  (sstep p o).1 !! j = p !! j.
Proof. exact sstep_frame. Qed.
Print Assumptions C15_side_frame.

(** ** 11. The BULK entry points as operations of the history language (model/C15_Bulk.v: [op6] = [op2] + parse_rxns in
    all its input forms + add_rxn_from_str; their models are those of C16).  A bulk call IS the sequence of individual additions it
    stands for (in particular, repeated lines given with `rules=` are all added). *)

(** parse_rxns item by item: one add_rxn_from_str per item, in order, stopping at the first item that raises (the items before
    it stay stored) *)
Theorem C15_bulk_is_fold : forall (s : net) (it : string * option string) (items : list (string * option string))
    (dr : string) (ps pf : bool),
  parse_items s [] dr ps pf = (s, None) /\
  parse_items s (it :: items) dr ps pf =
    match parse_item s it.1 it.2 dr ps pf with
    | (s', None) => parse_items s' items dr ps pf
    | (s', Some e) => (s', Some e)
    end /\
  exists rule' ps', parse_item s it.1 it.2 dr ps pf = add_from_str s it.1 rule' ps'.
Proof.
  exact (fun s it items dr ps pf => conj (parse_items_nil s dr ps pf) (conj (parse_items_cons s it items dr ps pf)
           (parse_item_is_add_from_str s it.1 it.2 dr ps pf))).
Qed.
Print Assumptions C15_bulk_is_fold.

(** NO DEDUPLICATION: a parse_rxns that raises nothing stores exactly one reaction per item — repeated lines, repeated reactions
    under different rules, lines equal to stored reactions included — after the reactions that were there (ids appended) *)
Theorem C15_bulk_one_reaction_per_item : forall (items : list (string * option string)) (s : net) (dr : string) (ps pf : bool) (s' : net),
  parse_items s items dr ps pf = (s', None) ->
  length (order s') = (length (order s) + length items)%nat /\ order s `prefix_of` order s'.
Proof. exact parse_items_count. Qed.
Print Assumptions C15_bulk_one_reaction_per_item.

(** a successful add_rxn_from_str stores exactly one new reaction, at the end, under an id that was free *)
Theorem C15_add_from_str_one : forall (s : net) (line : string) (rule : option string) (ps : bool) (s' : net),
  add_from_str s line rule ps = (s', None) ->
  exists e rx, edges s !! e = None /\ edges s' = <[ e := rx ]> (edges s) /\ order s' = (order s ++ [e])%list.
Proof. exact add_from_str_one. Qed.
Print Assumptions C15_add_from_str_one.

(** the store invariant holds in every world reachable through the extended language PLUS the bulk operations, whatever the
    text (also after a bulk call that raised midway); a bulk call changes only its target network *)
Theorem C15_inv_reachable_bulk : forall (n k : nat) (ops : list op6),
  Forall Inv (nets (fold_left (fun w o => (step6 w o).1.1) ops (init_world2 n k))).
Proof. exact run6_Inv. Qed.
Print Assumptions C15_inv_reachable_bulk.
Theorem C15_bulk_frame : forall (w : world2) (o : op6) (j : nat),
  match o with B2 _ => False | BParse i _ _ _ _ | BAddStr i _ _ _ => j <> i end ->
  nets (step6 w o).1.1 !! j = nets w !! j /\ pool (step6 w o).1.1 = pool w.
Proof. exact step6_frame. Qed.
Print Assumptions C15_bulk_frame.

(** ** 12. The species clause, operation by operation.
    Conjunct 3 of [C15_inv_meaning] reads "every species occurs in a stored reaction or was, at some point, explicitly kept"
    (the ghost field [kept] only grows: it means EVER kept).  The other direction — a species the caller chose to keep is still
    there — is proved here for the primitive operations: the species set shrinks only where the text allows.
      remove_species(x, prune_orphans=False)  drops NOTHING (x stays);  with prune_orphans=True it may drop x, and nothing else;
      remove_rxn(e)                           may drop species of the removed reaction only;
      add_rxn / merge / assign_mol / set_mol_map drop nothing.
    This bounds what a step MAY drop.  That an orphaned species of a removed reaction IS dropped (the must-drop direction) is
    C15_remove_rxn_prunes / C15_remove_species_prunes below; the three together with [Inv] give: a species is present after a step
    iff it occurs in a stored reaction, or it was present before, does not occur, and the step was not a removal touching it.
    Reading adopted by code, model and oracle: a kept species that ENTERS A REACTION AGAIN is an ordinary species — it goes when its
    last reaction goes ([ex_species_nonvacuous]). *)
Theorem C15_species_shrink_only_where_allowed :
  (forall s l r rule eid, species s ⊆ species (add s l r rule eid).1.1) /\
  (forall s e s' rx, remove_rxn s e = (s', None) -> edges s !! e = Some rx ->
     species s ∖ rxn_species rx ⊆ species s' /\ species s' ⊆ species s) /\
  (forall s x prune s', remove_species s x prune = (s', None) ->
     species s ∖ {[ x ]} ⊆ species s' /\ species s' ⊆ species s /\ (prune = false -> species s' = species s)) /\
  (forall s o prefix, species s ⊆ species (merge s o prefix).1) /\
  (forall s x m, species (assign_mol s x m).1 = species s) /\
  (forall s mp st cl, species (set_mol_map s mp st cl).1 = species s).
Proof.
  exact (conj add_species_mono (conj remove_rxn_species (conj remove_species_species
          (conj merge_species_mono (conj assign_mol_species set_mol_map_species))))).
Qed.
Print Assumptions C15_species_shrink_only_where_allowed.

(** the must-drop direction: after remove_rxn, a species of the removed reaction is still in the species set IF AND
    ONLY IF it still occurs in a stored reaction — whether or not it was ever kept ([ex_prunes_nonvacuous]: A -> B; remove_species A
    keep; add A -> C as e2; remove_rxn e2 drops A and C, keeps B); after remove_species(x, prune_orphans=True), x is gone *)
Theorem C15_remove_rxn_prunes : forall (s : net) (e : string) (s' : net) (rx : rxn),
  Inv s -> edges s !! e = Some rx -> remove_rxn s e = (s', None) ->
  forall x, x ∈ rxn_species rx -> (x ∈ species s' <-> exists e' rx', edges s' !! e' = Some rx' /\ x ∈ rxn_species rx').
Proof. exact remove_rxn_prunes. Qed.
Print Assumptions C15_remove_rxn_prunes.
Theorem C15_remove_species_prunes : forall (s : net) (x : string) (s' : net),
  remove_species s x true = (s', None) -> x ∉ species s'.
Proof. exact remove_species_prunes. Qed.
Print Assumptions C15_remove_species_prunes.
