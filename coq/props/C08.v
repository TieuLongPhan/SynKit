From Coq Require Import List NArith ZArith Permutation Relations.
From SK Require Import lib.LGraph lib.StrJoin model.C08_Model proof.C08_Spec proof.C08_Faithful proof.C08_Nauty proof.C08_SigFun proof.C08_Sound proof.C08_Invariant proof.C08_Value proof.C08_GraphSig proof.C08_Auts proof.C08_GenIdem proof.C08_Select proof.C08_Orbits.
From SK Require Import model.C08_Digraph proof.C08_DSpec proof.C08_DSer proof.C08_DNauty proof.C08_DInvariant proof.C08_MaxDepth proof.C08_DValue proof.C08_DGraphSig proof.C08_OrbitsAut proof.C08_DAuts proof.C08_DOrbitsAut.
From SK Require Import model.C08_Obs proof.C08_Order model.C08_Sel proof.C08_SelNauty proof.C08_SelEquiv proof.C08_MaxDepth2 proof.C08_Pattern proof.C08_RuleJoint.
From SK Require Import model.C08_Rule2 proof.C08_Rule2Spec proof.C08_Rule2 proof.C08_Rule2Derived.
Import ListNotations.

(** 1. Faithfulness: the canonical graph is the input relabelled by a map that is injective on its nodes;
       [relabel] keeps every node/edge attribute record, so all attributes are preserved.
       wl / morgan: for ANY ranking returned by the colour / label oracle. *)
Theorem C08_faithful_generic : forall g : graph, NoDup (node_ids g) ->
  exists f, inj_on f (node_ids g) /\ Permutation (gnodes (canon_generic g)) (gnodes (relabel f g))
            /\ gedges (canon_generic g) = gedges (relabel f g).
Proof. exact faithful_generic. Qed.
Print Assumptions C08_faithful_generic.

Theorem C08_faithful_wl_morgan : forall (ranks : list (N * Z)) (g : graph), NoDup (node_ids g) ->
  exists f, inj_on f (node_ids g) /\ Permutation (gnodes (canon_rank ranks g)) (gnodes (relabel f g))
            /\ gedges (canon_rank ranks g) = gedges (relabel f g).
Proof. exact faithful_rank. Qed.
Print Assumptions C08_faithful_wl_morgan.

Theorem C08_faithful_nauty : forall g : graph, NoDup (node_ids g) ->
  exists f, inj_on f (node_ids g) /\ Permutation (gnodes (canon_nauty g)) (gnodes (relabel f g))
            /\ gedges (canon_nauty g) = gedges (relabel f g).
Proof. exact faithful_nauty. Qed.
Print Assumptions C08_faithful_nauty.

(** 2. The canonical node ids are exactly 1..N (nauty: the leaf is the prefix followed by the REMAINING nodes; this includes
       termination of the search within its fuel and "every leaf is a permutation of the node set"). *)
Theorem C08_onto_1N_generic : forall g : graph, NoDup (node_ids g) ->
  Permutation (node_ids (canon_generic g)) (map N.of_nat (seq 1 (length (gnodes g)))).
Proof. exact onto_generic. Qed.
Print Assumptions C08_onto_1N_generic.

Theorem C08_onto_1N_wl_morgan : forall (ranks : list (N * Z)) (g : graph), NoDup (node_ids g) ->
  Permutation (node_ids (canon_rank ranks g)) (map N.of_nat (seq 1 (length (gnodes g)))).
Proof. exact onto_rank. Qed.
Print Assumptions C08_onto_1N_wl_morgan.

Theorem C08_onto_1N_nauty : forall g : graph, NoDup (node_ids g) ->
  Permutation (node_ids (canon_nauty g)) (map N.of_nat (seq 1 (length (gnodes g)))).
Proof. exact onto_nauty. Qed.
Print Assumptions C08_onto_1N_nauty.

(** 3. The signature (digest of the serialisation of the canonical graph) is a deterministic function of the graph
       as a mathematical object: two presentations with the same labelled node set and the same labelled set of
       unordered edges on the covered attributes (whatever the insertion order of nodes and edges, the orientation
       in which an edge is stored, and the uncovered attributes such as atom_map) get the same signature.
       [geq_cov g h] = Permutation (cov_nodes g) (cov_nodes h) /\ Permutation (cov_edges g) (cov_edges h).
       wl / morgan: for any ranking (the colours are a function of the graph; oracle input of the model). *)
Theorem C08_signature_function_generic : forall (D : Type) (digest : str -> D) (g h : graph),
  wf g -> wf h -> geq_cov g h ->
  digest (serialise (canon_generic g)) = digest (serialise (canon_generic h)).
Proof. exact signature_function_generic. Qed.
Print Assumptions C08_signature_function_generic.

Theorem C08_signature_function_wl_morgan : forall (D : Type) (digest : str -> D) (ranks : list (N * Z)) (g h : graph),
  wf g -> wf h -> geq_cov g h ->
  digest (serialise (canon_rank ranks g)) = digest (serialise (canon_rank ranks h)).
Proof. exact signature_function_rank. Qed.
Print Assumptions C08_signature_function_wl_morgan.

(** 4. Soundness: equal signatures make the two graphs isomorphic on the attributes the signature covers
       (element, charge, aromatic, hcount; order, standard_order): there is a map, injective on the nodes of [g],
       that carries the covered node set and covered edge set of [g] onto those of [h].
       Premises: both graphs well formed (networkx.Graph without self-loops), element symbols alphanumeric
       ([els_ok]: the serialisation quotes them without escaping), and the digest does not collide on the two
       strings compared (SHA-256 truncated to 128 bits; monitored on every run).  From injectivity of the
       serialisation (separator parsing, lib/StrJoin.v) and faithfulness.  wl / morgan: whatever the rankings. *)
Theorem C08_signature_sound_generic : forall (D : Type) (digest : str -> D) (g h : graph),
  wf g -> wf h -> els_ok g -> els_ok h ->
  (digest (serialise (canon_generic g)) = digest (serialise (canon_generic h)) ->
   serialise (canon_generic g) = serialise (canon_generic h)) ->
  digest (serialise (canon_generic g)) = digest (serialise (canon_generic h)) ->
  exists f, inj_on f (node_ids g) /\ geq_cov (relabel f g) h.
Proof. exact signature_sound_generic. Qed.
Print Assumptions C08_signature_sound_generic.

Theorem C08_signature_sound_wl_morgan : forall (D : Type) (digest : str -> D) (r r' : list (N * Z)) (g h : graph),
  wf g -> wf h -> els_ok g -> els_ok h ->
  (digest (serialise (canon_rank r g)) = digest (serialise (canon_rank r' h)) ->
   serialise (canon_rank r g) = serialise (canon_rank r' h)) ->
  digest (serialise (canon_rank r g)) = digest (serialise (canon_rank r' h)) ->
  exists f, inj_on f (node_ids g) /\ geq_cov (relabel f g) h.
Proof. exact signature_sound_rank. Qed.
Print Assumptions C08_signature_sound_wl_morgan.

Theorem C08_signature_sound_nauty : forall (D : Type) (digest : str -> D) (g h : graph),
  wf g -> wf h -> els_ok g -> els_ok h ->
  (digest (serialise (canon_nauty g)) = digest (serialise (canon_nauty h)) ->
   serialise (canon_nauty g) = serialise (canon_nauty h)) ->
  digest (serialise (canon_nauty g)) = digest (serialise (canon_nauty h)) ->
  exists f, inj_on f (node_ids g) /\ geq_cov (relabel f g) h.
Proof. exact signature_sound_nauty. Qed.
Print Assumptions C08_signature_sound_nauty.

(** 5. The exact back-end is invariant: any two graphs that are isomorphic on the covered attributes - however
       their nodes are numbered, in whatever order nodes and edges were inserted, whichever way round an edge is
       stored, whatever the atom maps (which only steer the order in which the search visits children) - receive
       the same canonical graph on the covered attributes and the same serialisation, hence the same signature.
       Proof: the individualisation-refinement search of the model is an instance of lib/IRCore + lib/IRSearch
       (pruned search = fold over the unpruned leaf enumeration; the leaf enumerations of isomorphic graphs
       correspond up to order; the minimum label is order-independent), the label string determines the
       position-indexed covered graph (two leaves with equal labels differ by an automorphism), and the
       serialisation is a function of the covered graph.  Includes termination within the fuel. *)
Theorem C08_nauty_invariant : forall (D : Type) (digest : str -> D) (g h : graph),
  wf g -> wf h -> els_ok g ->
  (exists f, inj_on f (node_ids g) /\ geq_cov (relabel f g) h) ->
  geq_cov (canon_nauty g) (canon_nauty h) /\
  digest (serialise (canon_nauty g)) = digest (serialise (canon_nauty h)).
Proof. exact signature_invariant_nauty. Qed.
Print Assumptions C08_nauty_invariant.

(** 3 (nauty). The signature of the exact back-end is a function of the graph (special case of 5). *)
Theorem C08_signature_function_nauty : forall (D : Type) (digest : str -> D) (g h : graph),
  wf g -> wf h -> els_ok g -> geq_cov g h ->
  digest (serialise (canon_nauty g)) = digest (serialise (canon_nauty h)).
Proof. exact signature_function_nauty. Qed.
Print Assumptions C08_signature_function_nauty.

(** 6. Value objects built on signatures compare equal exactly for isomorphic content (exact back-end), and only
       for isomorphic content (every back-end: that is 4).  SynGraph compares the signature of the raw graph,
       CanonicalGraph the signature of its canonical graph, SynRule (/repo 6662066) the signatures of the
       left and right fragments and of the reaction-centre graph.  Stated for the digests under the premise that
       the digest does not collide on the strings compared, and for the digest-free verdicts
       [syngraph_eqb] / [cangraph_eqb] / [synrule_eqb] of the model that the correspondence evaluates against
       the wrappers' __eq__ on every run.  A rule is modelled as its three fragment graphs (rc, left, right);
       the decomposition of an ITS graph into them is outside the model.
       SynRule: comparing the three signatures characterises three INDEPENDENT isomorphisms (the two
       _componentwise theorems below: true, but weaker than "isomorphic content", which is ONE map for rc, left and right) -
       see 25 for the joint statement: joint => equal is proved, equal => joint is REFUTED for the three-signature comparison. *)
Theorem C08_value_objects_syngraph : forall (D : Type) (digest : str -> D) (g h : graph),
  wf g -> wf h -> els_ok g -> els_ok h ->
  (digest (ser_nauty g) = digest (ser_nauty h) -> ser_nauty g = ser_nauty h) ->
  (digest (ser_nauty g) = digest (ser_nauty h) <-> iso_cov g h).
Proof. exact syngraph_nauty. Qed.
Print Assumptions C08_value_objects_syngraph.

Theorem C08_value_objects_canonicalgraph : forall (D : Type) (digest : str -> D) (g h : graph),
  wf g -> wf h -> els_ok g -> els_ok h ->
  (digest (ser_nauty (canon_nauty g)) = digest (ser_nauty (canon_nauty h)) ->
   ser_nauty (canon_nauty g) = ser_nauty (canon_nauty h)) ->
  (digest (ser_nauty (canon_nauty g)) = digest (ser_nauty (canon_nauty h)) <-> iso_cov g h).
Proof. exact cangraph_nauty. Qed.
Print Assumptions C08_value_objects_canonicalgraph.

Theorem C08_value_objects_synrule_componentwise : forall (D : Type) (digest : str -> D) (rc l r rc' l' r' : graph),
  wf rc -> wf l -> wf r -> wf rc' -> wf l' -> wf r' ->
  els_ok rc -> els_ok l -> els_ok r -> els_ok rc' -> els_ok l' -> els_ok r' ->
  (forall g h, digest (ser_nauty g) = digest (ser_nauty h) -> ser_nauty g = ser_nauty h) ->
  ((digest (ser_nauty l), digest (ser_nauty r)) = (digest (ser_nauty l'), digest (ser_nauty r'))
   /\ digest (ser_nauty rc) = digest (ser_nauty rc')
   <-> iso_cov l l' /\ iso_cov r r' /\ iso_cov rc rc').
Proof. exact synrule_nauty_flat. Qed.
Print Assumptions C08_value_objects_synrule_componentwise.

Theorem C08_value_objects_model_verdicts : forall g h : graph, wf g -> wf h -> els_ok g -> els_ok h ->
  (syngraph_eqb ser_nauty g h = true <-> iso_cov g h) /\
  (cangraph_eqb canon_nauty ser_nauty g h = true <-> iso_cov g h) /\
  (syngraph_eqb ser_generic g h = true -> iso_cov g h) /\
  (cangraph_eqb canon_generic ser_generic g h = true -> iso_cov g h).
Proof. exact vo_model_verdicts. Qed.
Print Assumptions C08_value_objects_model_verdicts.

Theorem C08_value_objects_model_synrule_componentwise : forall rc l r rc' l' r' : graph,
  wf rc -> wf l -> wf r -> wf rc' -> wf l' -> wf r' ->
  els_ok rc -> els_ok l -> els_ok r -> els_ok rc' -> els_ok l' -> els_ok r' ->
  (synrule_eqb ser_nauty (rc, l, r) (rc', l', r') = true <-> iso_cov l l' /\ iso_cov r r' /\ iso_cov rc rc').
Proof. exact synrule_eqb_nauty_flat. Qed.
Print Assumptions C08_value_objects_model_synrule_componentwise.

(** 7. Corollary of 5 (fixed point): canonicalising a canonical graph with the exact back-end changes nothing on the
       covered attributes, and the signature of the canonical graph (what CanonicalGraph hashes) is the signature
       of the raw graph (what SynGraph hashes). *)
Theorem C08_nauty_idempotent : forall g : graph, wf g -> els_ok g ->
  geq_cov (canon_nauty g) (canon_nauty (canon_nauty g)) /\
  serialise (canon_nauty (canon_nauty g)) = serialise (canon_nauty g).
Proof. exact nauty_idempotent. Qed.
Print Assumptions C08_nauty_idempotent.

(** 8. NautyCanonicalizer.graph_signature (the digest of the label of the canonical graph read in the order 1..N;
       model: [graph_sig_label]) is exact: equal exactly for graphs that are isomorphic on the covered attributes -
       including ITS / reaction-centre graphs whose orders are (before, after) pairs, where a pair and its mirror image
       are different values.  The label it hashes is the minimal label found by the search. *)
Theorem C08_graph_signature_exact : forall (D : Type) (digest : str -> D) (g h : graph),
  wf g -> wf h -> els_ok g -> els_ok h ->
  (digest (graph_sig_label g) = digest (graph_sig_label h) -> graph_sig_label g = graph_sig_label h) ->
  (digest (graph_sig_label g) = digest (graph_sig_label h) <-> iso_cov g h).
Proof. exact graph_signature_spec. Qed.
Print Assumptions C08_graph_signature_exact.

Theorem C08_graph_signature_is_min_label : forall g : graph, wf g ->
  graph_sig_label g = nlabel g (nauty_perm g) /\ nauty_label g = Some (nlabel g (nauty_perm g)).
Proof. exact graph_sig_label_min_both. Qed.
Print Assumptions C08_graph_signature_is_min_label.

(** 9. The automorphism output of the exact back-end (canonical_form(return_aut=True); input of compute_orbits):
       the permutations reported next to the best one are exactly the leaves with the minimal label.
       Sound: each is a permutation of the node set with the label of the best one, and renumbering by it gives the same
       covered canonical graph - best_i |-> reported_i is an automorphism on the covered attributes.
       Complete: every automorphism sigma of the covered graph carries the best permutation to a reported one
       (pruning never drops a leaf with the minimal label). *)
Theorem C08_nauty_automorphisms_sound : forall g : graph, wf g -> els_ok g -> forall q, In q (snd (nauty_acc g)) ->
  Permutation q (node_ids g) /\ nlabel g q = nlabel g (nauty_perm g) /\
  geq_cov (relabel (apply_map (mapping_of (nauty_perm g))) g) (relabel (apply_map (mapping_of q)) g).
Proof. exact nauty_auts_sound. Qed.
Print Assumptions C08_nauty_automorphisms_sound.

Theorem C08_nauty_automorphisms_complete : forall (g : graph) (sigma : N -> N), wf g ->
  (forall x y, sigma x = sigma y -> x = y) -> geq_cov (relabel sigma g) g ->
  In (map sigma (nauty_perm g)) (snd (nauty_acc g)).
Proof. exact nauty_auts_complete. Qed.
Print Assumptions C08_nauty_automorphisms_complete.

(** 10. The attribute-sort back-end is idempotent: canonicalising a generic canonical graph changes nothing on the
        covered attributes (its nodes are already numbered in sorted order; the sort keys are prefix-free, so replacing
        the id tie-breaker by the rank keeps the order), hence the signature of the twin - what CanonicalGraph hashes -
        is the signature of the raw graph - what SynGraph hashes - also for the generic back-end. *)
Theorem C08_generic_idempotent : forall g : graph, wf g ->
  geq_cov (canon_generic (canon_generic g)) (canon_generic g) /\
  serialise (canon_generic (canon_generic g)) = serialise (canon_generic g).
Proof. exact generic_idempotent. Qed.
Print Assumptions C08_generic_idempotent.

(** 11. NautyCanonicalizer with edge_attrs = ["order"] (standard_order not selected) is modelled as the search on
        [strip_std g] (every standard_order forgotten; the canonical permutation is compared with the implementation's
        on every run).  It is exact on the attributes it selects: invariant canonical graph, and its graph_signature
        is equal exactly for graphs isomorphic once standard_order is forgotten. *)
Theorem C08_nauty_order_only_exact : forall (D : Type) (digest : str -> D) (g h : graph),
  wf g -> wf h -> els_ok g -> els_ok h ->
  (iso_cov (strip_std g) (strip_std h) -> geq_cov (canon_nauty (strip_std g)) (canon_nauty (strip_std h))) /\
  ((digest (graph_sig_label (strip_std g)) = digest (graph_sig_label (strip_std h)) ->
    graph_sig_label (strip_std g) = graph_sig_label (strip_std h)) ->
   (digest (graph_sig_label (strip_std g)) = digest (graph_sig_label (strip_std h)) <-> iso_cov (strip_std g) (strip_std h))).
Proof. exact nauty_order_only_exact. Qed.
Print Assumptions C08_nauty_order_only_exact.

(** 12. compute_orbits (canonical_form(return_orbits=True); model [nauty_orbits], a union-find over the reported
        permutations): the orbits partition the node set, and two nodes lie in one orbit exactly when they are linked
        by a chain of pairs (best_i, q_i), q a reported permutation - by 9 each such pair is the image of a node under
        an automorphism, and every automorphism contributes its pairs. *)
Theorem C08_nauty_orbits : forall g : graph, NoDup (node_ids g) ->
  Permutation (concat (nauty_orbits g)) (node_ids g) /\
  (forall c x y, In c (nauty_orbits g) -> In x c -> In y c ->
     clos_refl_sym_trans N (fun a b => exists q, In q (snd (nauty_acc g)) /\ In (a, b) (combine (nauty_perm g) q)) x y) /\
  (forall x y, In x (node_ids g) -> In y (node_ids g) ->
     clos_refl_sym_trans N (fun a b => exists q, In q (snd (nauty_acc g)) /\ In (a, b) (combine (nauty_perm g) q)) x y ->
     exists c, In c (nauty_orbits g) /\ In x c /\ In y c).
Proof. exact nauty_orbits_spec. Qed.
Print Assumptions C08_nauty_orbits.

(** 13. Directed inputs.  GraphCanonicaliser documents that the class of the input is preserved, and
        _serialise has a branch for directed graphs; a networkx.DiGraph is modelled by the same [lgraph] with the edge list
        read as the list of ARCS u -> v (model/C08_Digraph.v).  Theorems 1 and 2 for the attribute-sort and wl / morgan
        back-ends already cover digraphs: [canon_generic] / [canon_rank] are the model of both cases ([degree] = in-degree +
        out-degree = DiGraph.degree) and [gedges (canon ...) = gedges (relabel f g)] keeps the direction of every arc.
        What differs is the serialisation ([dserialise]: end points printed as stored; sort key (_edge_key, (u, v)), /repo
        repair R5a) and the exact back-end ([dsigN]: successors only; [dnlabel]: both triangles of the matrix, /repo repair R5b).
        [dwf] = distinct node ids, arcs join two distinct nodes of the graph, at most one arc per ORDERED pair;
        [dgeq_cov] = same covered node set and same covered ARC set; [diso_cov] = isomorphic AS DIGRAPHS. *)
Theorem C08_digraph_faithful_nauty : forall g : graph, NoDup (node_ids g) ->
  exists f, inj_on f (node_ids g) /\ Permutation (gnodes (dcanon_nauty g)) (gnodes (relabel f g))
            /\ gedges (dcanon_nauty g) = gedges (relabel f g).
Proof. exact faithful_dnauty. Qed.
Print Assumptions C08_digraph_faithful_nauty.

Theorem C08_digraph_onto_1N_nauty : forall g : graph, NoDup (node_ids g) ->
  Permutation (node_ids (dcanon_nauty g)) (map N.of_nat (seq 1 (length (gnodes g)))).
Proof. exact onto_dnauty. Qed.
Print Assumptions C08_digraph_onto_1N_nauty.

(** the signature of a digraph is a function of the digraph: insertion order of nodes and arcs and uncovered attributes
    do not matter (before repair R5a false for the exact back-end: antiparallel arcs with equal attributes tied in the
    sort key and were printed in insertion order) *)
Theorem C08_digraph_signature_function_generic : forall (D : Type) (digest : str -> D) (g h : graph),
  dwf g -> dwf h -> dgeq_cov g h ->
  digest (dserialise (canon_generic g)) = digest (dserialise (canon_generic h)).
Proof. exact dsignature_function_generic. Qed.
Print Assumptions C08_digraph_signature_function_generic.

Theorem C08_digraph_signature_function_wl_morgan : forall (D : Type) (digest : str -> D) (ranks : list (N * Z)) (g h : graph),
  dwf g -> dwf h -> dgeq_cov g h ->
  digest (dserialise (canon_rank ranks g)) = digest (dserialise (canon_rank ranks h)).
Proof. exact dsignature_function_rank. Qed.
Print Assumptions C08_digraph_signature_function_wl_morgan.

(** equal signatures make two digraphs isomorphic as digraphs - the direction of every arc is covered (seeded change
    C08-w3-2 printed the end points smallest first: u -> v and v -> u got one signature) *)
Theorem C08_digraph_signature_sound_generic : forall (D : Type) (digest : str -> D) (g h : graph),
  dwf g -> dwf h -> els_ok g -> els_ok h ->
  (digest (dserialise (canon_generic g)) = digest (dserialise (canon_generic h)) ->
   dserialise (canon_generic g) = dserialise (canon_generic h)) ->
  digest (dserialise (canon_generic g)) = digest (dserialise (canon_generic h)) ->
  exists f, inj_on f (node_ids g) /\ dgeq_cov (relabel f g) h.
Proof. exact dsignature_sound_generic. Qed.
Print Assumptions C08_digraph_signature_sound_generic.

Theorem C08_digraph_signature_sound_wl_morgan : forall (D : Type) (digest : str -> D) (r r' : list (N * Z)) (g h : graph),
  dwf g -> dwf h -> els_ok g -> els_ok h ->
  (digest (dserialise (canon_rank r g)) = digest (dserialise (canon_rank r' h)) ->
   dserialise (canon_rank r g) = dserialise (canon_rank r' h)) ->
  digest (dserialise (canon_rank r g)) = digest (dserialise (canon_rank r' h)) ->
  exists f, inj_on f (node_ids g) /\ dgeq_cov (relabel f g) h.
Proof. exact dsignature_sound_rank. Qed.
Print Assumptions C08_digraph_signature_sound_wl_morgan.

Theorem C08_digraph_signature_sound_nauty : forall (D : Type) (digest : str -> D) (g h : graph),
  dwf g -> dwf h -> els_ok g -> els_ok h ->
  (digest (dserialise (dcanon_nauty g)) = digest (dserialise (dcanon_nauty h)) ->
   dserialise (dcanon_nauty g) = dserialise (dcanon_nauty h)) ->
  digest (dserialise (dcanon_nauty g)) = digest (dserialise (dcanon_nauty h)) ->
  exists f, inj_on f (node_ids g) /\ dgeq_cov (relabel f g) h.
Proof. exact dsignature_sound_nauty. Qed.
Print Assumptions C08_digraph_signature_sound_nauty.

(** the exact back-end is invariant on digraphs: isomorphic digraphs, however numbered and inserted, get the same
    canonical digraph and the same signature (before repair R5b false: the label read only the arcs p_i -> p_j with
    i < j, two leaves with equal labels could give different canonical digraphs) *)
Theorem C08_digraph_nauty_invariant : forall (D : Type) (digest : str -> D) (g h : graph),
  dwf g -> dwf h -> els_ok g ->
  (exists f, inj_on f (node_ids g) /\ dgeq_cov (relabel f g) h) ->
  dgeq_cov (dcanon_nauty g) (dcanon_nauty h) /\
  digest (dserialise (dcanon_nauty g)) = digest (dserialise (dcanon_nauty h)).
Proof. exact dsignature_invariant_nauty. Qed.
Print Assumptions C08_digraph_nauty_invariant.

(** value objects on digraphs (SynGraph / CanonicalGraph compare this digest): equal exactly for isomorphic digraphs *)
Theorem C08_digraph_signature_exact_nauty : forall (D : Type) (digest : str -> D) (g h : graph),
  dwf g -> dwf h -> els_ok g -> els_ok h ->
  (digest (dser_nauty g) = digest (dser_nauty h) -> dser_nauty g = dser_nauty h) ->
  (digest (dser_nauty g) = digest (dser_nauty h) <-> (exists f, inj_on f (node_ids g) /\ dgeq_cov (relabel f g) h)).
Proof. exact dsignature_exact_nauty. Qed.
Print Assumptions C08_digraph_signature_exact_nauty.

(** 14. canonical_form(max_depth = md) of the exact back-end (model [canon_md]: None = RuntimeError, else (perm, early_stop);
        compared with the implementation for md = 0, 1, 2 and the number of nodes on every run).
        Exact: with md >= number of nodes the depth guard never fires - the result is the unbounded search's permutation and
        early_stop = False.  Faithful: whatever md, a returned permutation is a leaf of the search tree, so the returned graph
        is the input relabelled by a map injective on its nodes onto 1..N (not necessarily the canonical one). *)
Theorem C08_nauty_max_depth_exact : forall (md : nat) (g : graph), length (gnodes g) <= md -> NoDup (node_ids g) ->
  canon_md md g = Some (nauty_perm g, false).
Proof. exact canon_md_exact. Qed.
Print Assumptions C08_nauty_max_depth_exact.

Theorem C08_nauty_max_depth_faithful : forall (md : nat) (g : graph) (p : list N) (b : bool), NoDup (node_ids g) ->
  canon_md md g = Some (p, b) ->
  (exists f, inj_on f (node_ids g) /\ Permutation (gnodes (relabel (apply_map (mapping_of p)) g)) (gnodes (relabel f g))
             /\ gedges (relabel (apply_map (mapping_of p)) g) = gedges (relabel f g)) /\
  Permutation (node_ids (relabel (apply_map (mapping_of p)) g)) (map N.of_nat (seq 1 (length (gnodes g)))).
Proof. exact canon_md_faithful. Qed.
Print Assumptions C08_nauty_max_depth_faithful.

(** 15. Directed inputs, fixed point and wrappers: canonicalising a canonical digraph with the exact back-end changes nothing on
        the covered attributes (so CanonicalGraph's hash = SynGraph's signature on DiGraphs too); CanonicalGraph wrappers of
        DiGraphs are equal exactly for isomorphic digraphs; the digest-free verdicts the correspondence evaluates on every
        digraph case ([drun_vo]): exact back-end <=> isomorphic as digraphs, attribute-sort back-end => isomorphic as digraphs. *)
Theorem C08_digraph_nauty_idempotent : forall g : graph, dwf g -> els_ok g ->
  dgeq_cov (dcanon_nauty g) (dcanon_nauty (dcanon_nauty g)) /\
  dserialise (dcanon_nauty (dcanon_nauty g)) = dserialise (dcanon_nauty g).
Proof. exact dnauty_idempotent. Qed.
Print Assumptions C08_digraph_nauty_idempotent.

Theorem C08_digraph_value_objects_canonicalgraph : forall (D : Type) (digest : str -> D) (g h : graph),
  dwf g -> dwf h -> els_ok g -> els_ok h ->
  (digest (dser_nauty (dcanon_nauty g)) = digest (dser_nauty (dcanon_nauty h)) ->
   dser_nauty (dcanon_nauty g) = dser_nauty (dcanon_nauty h)) ->
  (digest (dser_nauty (dcanon_nauty g)) = digest (dser_nauty (dcanon_nauty h)) <->
   (exists f, inj_on f (node_ids g) /\ dgeq_cov (relabel f g) h)).
Proof. exact dcangraph_nauty. Qed.
Print Assumptions C08_digraph_value_objects_canonicalgraph.

Theorem C08_digraph_value_objects_model_verdicts : forall g h : graph, dwf g -> dwf h -> els_ok g -> els_ok h ->
  (syngraph_eqb dser_nauty g h = true <-> diso_cov g h) /\
  (cangraph_eqb dcanon_nauty dser_nauty g h = true <-> diso_cov g h) /\
  (syngraph_eqb dser_generic g h = true -> diso_cov g h) /\
  (cangraph_eqb canon_generic dser_generic g h = true -> diso_cov g h).
Proof. exact dvo_model_verdicts. Qed.
Print Assumptions C08_digraph_value_objects_model_verdicts.

(** 16. NautyCanonicalizer.graph_signature on a DiGraph (model [dgraph_sig_label]: the two-triangle label of the canonical
        digraph read in the order 1..N; compared with the implementation per presentation on every digraph case): it hashes
        the minimal label of the search and is equal exactly for digraphs that are isomorphic as digraphs. *)
Theorem C08_digraph_graph_signature_exact : forall (D : Type) (digest : str -> D) (g h : graph),
  dwf g -> dwf h -> els_ok g -> els_ok h ->
  (digest (dgraph_sig_label g) = digest (dgraph_sig_label h) -> dgraph_sig_label g = dgraph_sig_label h) ->
  (digest (dgraph_sig_label g) = digest (dgraph_sig_label h) <-> diso_cov g h).
Proof. exact dgraph_signature_spec. Qed.
Print Assumptions C08_digraph_graph_signature_exact.

Theorem C08_digraph_graph_signature_is_min_label : forall g : graph, dwf g ->
  dgraph_sig_label g = dnlabel g (dnauty_perm g) /\ dnauty_label g = Some (dnlabel g (dnauty_perm g)).
Proof. exact dgraph_sig_label_min_both. Qed.
Print Assumptions C08_digraph_graph_signature_is_min_label.

(** 17. compute_orbits returns the orbits of the automorphism group (closes the gap left by 12): two nodes lie in one class
        of [nauty_orbits] exactly when an automorphism of the covered graph - a map injective on the nodes with
        [geq_cov (relabel s g) g] - carries one to the other.  (12 gives the classes generated by the reported pairs, 9 makes
        every reported pair an automorphism image and every automorphism a reported permutation; the automorphisms form a
        group: identity, composition, inverse on the node set.) *)
Theorem C08_nauty_orbits_are_automorphism_orbits : forall g : graph, wf g -> els_ok g ->
  forall x y, In x (node_ids g) -> In y (node_ids g) ->
  ((exists c, In c (nauty_orbits g) /\ In x c /\ In y c) <->
   (exists s, (inj_on s (node_ids g) /\ geq_cov (relabel s g) g) /\ s x = y)).
Proof. exact nauty_orbits_aut. Qed.
Print Assumptions C08_nauty_orbits_are_automorphism_orbits.

(** 18. Directed inputs: automorphism and orbit outputs of the exact back-end on a DiGraph (9, 12 and 17 for digraphs; the
        reported permutations and the orbits are compared with the implementation on every digraph case). *)
Theorem C08_digraph_nauty_automorphisms_sound : forall g : graph, dwf g -> els_ok g -> forall q, In q (snd (dnauty_acc g)) ->
  Permutation q (node_ids g) /\ dnlabel g q = dnlabel g (dnauty_perm g) /\
  dgeq_cov (relabel (apply_map (mapping_of (dnauty_perm g))) g) (relabel (apply_map (mapping_of q)) g).
Proof. exact dnauty_auts_sound. Qed.
Print Assumptions C08_digraph_nauty_automorphisms_sound.

Theorem C08_digraph_nauty_automorphisms_complete : forall (g : graph) (sigma : N -> N), dwf g ->
  (forall x y, sigma x = sigma y -> x = y) -> dgeq_cov (relabel sigma g) g ->
  In (map sigma (dnauty_perm g)) (snd (dnauty_acc g)).
Proof. exact dnauty_auts_complete. Qed.
Print Assumptions C08_digraph_nauty_automorphisms_complete.

Theorem C08_digraph_nauty_orbits_are_automorphism_orbits : forall g : graph, dwf g -> els_ok g ->
  forall x y, In x (node_ids g) -> In y (node_ids g) ->
  ((exists c, In c (dnauty_orbits g) /\ In x c /\ In y c) <->
   (exists s, (inj_on s (node_ids g) /\ dgeq_cov (relabel s g) g) /\ s x = y)).
Proof. exact dnauty_orbits_aut. Qed.
Print Assumptions C08_digraph_nauty_orbits_are_automorphism_orbits.

(** 19. The canonical node order compared with the implementation on every run ([generic_order], [rank_order]: old ids in the
        order of their new ids) is the order the canonical graphs of the attribute-sort / wl / morgan back-ends are built from, it
        enumerates the nodes, and the new id of a node is its position in it. *)
Theorem C08_canonical_node_order : forall (ranks : list (N * Z)) (g : graph),
  canon_generic g = rebuild g (generic_order g) /\ Permutation (generic_order g) (node_ids g) /\
  canon_rank ranks g = rebuild g (rank_order ranks g) /\ Permutation (rank_order ranks g) (node_ids g) /\
  (NoDup (node_ids g) -> forall v, In v (node_ids g) ->
     nth_error (generic_order g) (N.to_nat (apply_map (mapping_of (generic_order g)) v) - 1) = Some v).
Proof. exact canonical_orders. Qed.
Print Assumptions C08_canonical_node_order.

(** 20. NautyCanonicalizer(node_attrs, edge_attrs) used directly with ANY attribute selection, in any order, also empty (model
        model/C08_Sel.v: the selected attributes form the cell key, the signature, the label fields and the partial label; four
        selections are compared with the implementation - permutation, best label, reported permutations, graph_signature
        pattern - on a quarter of the cases): canonical_form returns the input relabelled by a map injective on its nodes onto
        1..N (the search terminates, the partial label stays a lower bound whatever is printed).  The selection
        GraphCanonicaliser passes gives the label of 8.  (Exactness on the selected attributes: proved for the default selection
        (5, 8) and for edge_attrs = [order] (11); other selections: oracle.) *)
Theorem C08_nauty_selection_faithful : forall (na : list nsel) (ea : list esel) (g : graph), NoDup (node_ids g) ->
  exists f, inj_on f (node_ids g) /\ Permutation (gnodes (canon_nauty_sel na ea g)) (gnodes (relabel f g))
            /\ gedges (canon_nauty_sel na ea g) = gedges (relabel f g).
Proof. exact faithful_nauty_sel. Qed.
Print Assumptions C08_nauty_selection_faithful.

Theorem C08_nauty_selection_onto_1N : forall (na : list nsel) (ea : list esel) (g : graph), NoDup (node_ids g) ->
  Permutation (node_ids (canon_nauty_sel na ea g)) (map N.of_nat (seq 1 (length (gnodes g)))).
Proof. exact onto_nauty_sel. Qed.
Print Assumptions C08_nauty_selection_onto_1N.

Theorem C08_nauty_selection_default_label : forall (g : graph) (p : list N),
  nlabel_sel [SEl; SAr; SCh; SHc] [SOrd; SStd] g p = nlabel g p.
Proof. exact nlabel_sel_default. Qed.
Print Assumptions C08_nauty_selection_default_label.

(** 21. REFUTED clause (known finding nauty-empty-selection:graph_signature:n0-vs-n1): NautyCanonicalizer.graph_signature with NO
        node attribute selected is not sound on the pair (empty graph, single node): both labels are "||".  With the default
        selection the two labels differ (8 holds there).  Kept as it is: making the label carry the node count would change
        every stored graph_signature digest. *)
Theorem C08_nauty_empty_selection_graph_signature_refuted : exists g h : graph,
  graph_sig_label_sel [] [] g = graph_sig_label_sel [] [] h /\ length (gnodes g) <> length (gnodes h)
  /\ graph_sig_label_sel [SEl; SAr; SCh; SHc] [SOrd; SStd] g <> graph_sig_label_sel [SEl; SAr; SCh; SHc] [SOrd; SStd] h.
Proof. exact empty_selection_refuted. Qed.
Print Assumptions C08_nauty_empty_selection_graph_signature_refuted.

(** 22. Every attribute selection: isomorphic graphs (on the covered attributes, however numbered / inserted / oriented) get the same
        NautyCanonicalizer.graph_signature, and the label it hashes is the minimal label of the selection's search.  (The converse
        on the SELECTED attributes: default selection 8, order-only 11; refuted for the empty node selection, 21.) *)
Theorem C08_nauty_selection_graph_signature_invariant : forall (D : Type) (digest : str -> D) (na : list nsel) (ea : list esel) (g h : graph),
  wf g -> wf h -> iso_cov g h ->
  digest (graph_sig_label_sel na ea g) = digest (graph_sig_label_sel na ea h).
Proof. exact graph_signature_sel_invariant. Qed.
Print Assumptions C08_nauty_selection_graph_signature_invariant.

Theorem C08_nauty_selection_graph_signature_is_min_label : forall (na : list nsel) (ea : list esel) (g : graph), wf g ->
  graph_sig_label_sel na ea g = nlabel_sel na ea g (nauty_perm_sel na ea g).
Proof. exact graph_sig_label_sel_min. Qed.
Print Assumptions C08_nauty_selection_graph_signature_is_min_label.

(** 23. canonical_form(max_depth): whenever early_stop is reported False the search was complete - the returned permutation is the
        canonical one, for every bound (the flag is sticky).  With 14: early_stop = False <=> nothing was cut off as far as the
        result is concerned; early_stop = True still returns a faithful relabelling. *)
Theorem C08_nauty_max_depth_no_early_stop : forall (md : nat) (g : graph) (p : list N), NoDup (node_ids g) ->
  canon_md md g = Some (p, false) -> p = nauty_perm g.
Proof. exact canon_md_no_early_stop. Qed.
Print Assumptions C08_nauty_max_depth_no_early_stop.

(** 24. The monitored digest premise.  The correspondence compares the equality pattern of the implementation's digests with
        [pattern [] strings] of the model's serialisations ([run_case], [run_batch], [run_sel], ...).  Two positions of the pattern
        agree exactly when the two strings are equal - so a run without mismatch has checked, on every pair of strings it compared,
        "digests equal <=> strings equal": the premise of the soundness theorems. *)
Theorem C08_pattern_observable : forall (l : list str) (i j : nat) (s t : str),
  nth_error l i = Some s -> nth_error l j = Some t ->
  (nth_error (pattern [] l) i = nth_error (pattern [] l) j <-> s = t).
Proof. exact pattern_eq_iff. Qed.
Print Assumptions C08_pattern_observable.

(** 25. SynRule and ONE bijection.  Isomorphic content of a rule = a single map f carrying left, right and reaction-centre graph
        simultaneously.  Such rules compare equal ([synrule_eqb]: the three signatures agree) - full.  The converse is REFUTED for the
        comparison of the three signatures of the single-sided graphs (what SynRule.__eq__ did before repair 4537ada): two double
        bonds 1=2, 3=4 closing to the four-ring 1-2-3-4 with product-side charge +1 on {1,2} resp. {1,4}; the right fragment alone
        has the reflection exchanging the two pairs, the reaction-centre graph (whose node attributes were the reactant side only)
        does not see the charges, no single map works.  The repaired code signs the reaction-centre graph with both sides of
        typesGH; that graph is outside the model and the repaired behaviour is judged by the oracle on rules built from ITS graphs
        (case kind itsrule: one bijection preserving both sides of typesGH and the (before, after) orders). *)
Theorem C08_value_objects_synrule_joint_complete : forall rc l r rc' l' r' : graph,
  wf rc -> wf l -> wf r -> wf rc' -> wf l' -> wf r' ->
  els_ok rc -> els_ok l -> els_ok r -> els_ok rc' -> els_ok l' -> els_ok r' ->
  (exists f, inj_on f (node_ids rc) /\ inj_on f (node_ids l) /\ inj_on f (node_ids r) /\
             geq_cov (relabel f l) l' /\ geq_cov (relabel f r) r' /\ geq_cov (relabel f rc) rc') ->
  synrule_eqb ser_nauty (rc, l, r) (rc', l', r') = true.
Proof. exact synrule_joint_complete_flat. Qed.
Print Assumptions C08_value_objects_synrule_joint_complete.

Theorem C08_value_objects_synrule_refuted : exists rc l r rc' l' r' : graph,
  (wf rc /\ wf l /\ wf r /\ wf rc' /\ wf l' /\ wf r') /\
  (els_ok rc /\ els_ok l /\ els_ok r /\ els_ok rc' /\ els_ok l' /\ els_ok r') /\
  synrule_eqb ser_nauty (rc, l, r) (rc', l', r') = true /\
  ~ (exists f, inj_on f (node_ids rc) /\ inj_on f (node_ids l) /\ inj_on f (node_ids r) /\
               geq_cov (relabel f l) l' /\ geq_cov (relabel f r) r' /\ geq_cov (relabel f rc) rc').
Proof. exact synrule_joint_refuted_flat. Qed.
Print Assumptions C08_value_objects_synrule_refuted.

(** 26. The REPAIRED SynRule equality (/repo 4537ada; model/C08_Rule2.v).  A rule = (its, left, right): [its : graph2] is the
        ITS graph with a two-sided node attribute (reactant, product) and (before, after) bond orders; __eq__ / __hash__ compare
        left.signature, right.signature and the signature of the two-sided reaction-centre graph ([rule2_eqb]; the verdict matrix of
        every itsrule and rule case is compared with SynRule.__eq__ and hash equality on every run, with and without implicit_h).
        [geq2] = same set of atoms with (element, charge, aromatic, hcount) BEFORE AND AFTER, same set of bonds with (before, after,
        standard_order); [els2_ok] = element symbols are ASCII letters / digits.
        a. the two-sided rc signature is exact: equal <=> ONE bijection preserving the two-sided labels of atoms and bonds;
        b. equal rules are isomorphic as rules (that bijection exists) - the clause that fails for the three-signature comparison (25);
        c. for rules whose stored fragments are the its_decompose projections of their stored ITS graph ([left_of]: reactant-side atom
           labels, bonds with before > 0 and order := before; [right_of]: product side / after; the constructor's hydrogen handling
           edits the three graphs consistently - the model checks [derived_b] on the implementation's values of EVERY rule of every
           case, and [derived_b_sound] turns the check into the premise): equal <=> isomorphic as rules, full strength;
        d. without that premise: equal <=> ITS-isomorphic and fragmentwise isomorphic. *)
Theorem C08_synrule_repaired_rc_signature_exact : forall g h : graph2, wf g -> wf h -> els2_ok g -> els2_ok h ->
  (rc2_sig g = rc2_sig h <-> exists f, inj_on f (node_ids g) /\ geq2 (relabel f g) h).
Proof. exact rc2_sig_exact. Qed.
Print Assumptions C08_synrule_repaired_rc_signature_exact.

Theorem C08_synrule_repaired_eq_sound : forall (its its' : graph2) (l r l' r' : graph),
  wf its -> wf l -> wf r -> wf its' -> wf l' -> wf r' -> els2_ok its -> els_ok l -> els_ok r -> els2_ok its' -> els_ok l' -> els_ok r' ->
  rule2_eqb (its, l, r) (its', l', r') = true ->
  exists f, inj_on f (node_ids its) /\ geq2 (relabel f its) its'.
Proof. exact rule2_eq_sound_flat. Qed.
Print Assumptions C08_synrule_repaired_eq_sound.

Theorem C08_synrule_repaired_eq_exact : forall (its its' : graph2) (l r l' r' : graph),
  wf its -> wf l -> wf r -> wf its' -> wf l' -> wf r' -> els2_ok its -> els_ok l -> els_ok r -> els2_ok its' -> els_ok l' -> els_ok r' ->
  geq_cov l (left_of its) -> geq_cov r (right_of its) -> geq_cov l' (left_of its') -> geq_cov r' (right_of its') ->
  (rule2_eqb (its, l, r) (its', l', r') = true <-> exists f, inj_on f (node_ids its) /\ geq2 (relabel f its) its').
Proof. exact rule2_exact_flat. Qed.
Print Assumptions C08_synrule_repaired_eq_exact.

Theorem C08_synrule_repaired_eq_componentwise : forall (its its' : graph2) (l r l' r' : graph),
  wf its -> wf l -> wf r -> wf its' -> wf l' -> wf r' -> els2_ok its -> els_ok l -> els_ok r -> els2_ok its' -> els_ok l' -> els_ok r' ->
  (rule2_eqb (its, l, r) (its', l', r') = true <->
   (exists f, inj_on f (node_ids its) /\ geq2 (relabel f its) its') /\ iso_cov l l' /\ iso_cov r r').
Proof. exact rule2_eqb_spec_flat. Qed.
Print Assumptions C08_synrule_repaired_eq_componentwise.

(** 26e. the check the correspondence evaluates on the implementation's values of every rule ([derived_b]: the serialisations of the
         stored fragments equal those of the projections) implies the premise of 26c. *)
Theorem C08_synrule_repaired_derived_check : forall (its : graph2) (l r : graph), els2_ok its -> els_ok l -> els_ok r ->
  derived_b (its, l, r) = true -> geq_cov l (left_of its) /\ geq_cov r (right_of its).
Proof. exact derived_b_sound_flat. Qed.
Print Assumptions C08_synrule_repaired_derived_check.
