From Coq Require Import List NArith ZArith Permutation Sorting.Sorted.
Require mathcomp.algebra.mxalgebra mathcomp.algebra.matrix mathcomp.algebra.rat.
Require SK.lib.RankBridge SK.proof.C17_Rank.
From SK Require Import lib.IRSortKeys lib.C17_Farkas model.C17_Model proof.C17_Proof model.C17_NodeModel proof.C17_Nodes
  model.C17_IntLaws proof.C17_IntLawsProof model.C17_RawModel proof.C17_Raw model.C17_Fallback proof.C17_FallbackProof proof.C17_Premises.
Import ListNotations.

(** (1) build_S: one row per species, one column per reaction. *)
Theorem C17_S_shape : forall (net : list rxn) (iso : list str),
  length (build_S net iso) = length (species_order net iso) /\
  Forall (fun row => length row = length (reaction_order net)) (build_S net iso) /\
  length (reaction_order net) = length net.
Proof. exact S_shape. Qed.
Print Assumptions C17_S_shape.

(** (2) rows = the species of the network (occurring or kept), strictly sorted by label. *)
Theorem C17_S_rows : forall (net : list rxn) (iso : list str),
  species_order net iso = species_set net iso /\
  @ssorted str strleb (species_order net iso) /\
  forall s, In s (species_order net iso) <-> (exists e, In e net /\ In s (rxn_species e)) \/ In s iso.
Proof.
  intros net iso. split; [apply species_order_eq|]. rewrite species_order_eq.
  split; [apply species_set_sorted | apply species_set_in].
Qed.
Print Assumptions C17_S_rows.

(** (3) columns = the reactions, in the stable order by rule label, then by edge id. *)
Theorem C17_S_columns : forall (net : list rxn),
  Permutation (reaction_order net) net /\
  StronglySorted (fun a b => (strleb (rrule a) (rrule b) = true /\ rrule a <> rrule b) \/
                             (rrule a = rrule b /\ strleb (rid a) (rid b) = true)) (reaction_order net).
Proof. (* the relation is [col_order] of proof/C17_Proof.v, written out *)
  intros net. split; [apply reaction_order_perm | apply reaction_order_sorted].
Qed.
Print Assumptions C17_S_columns.

(** (4) entry (species s, reaction e) = produced - consumed; S_minus / S_plus hold the two amounts. *)
Theorem C17_S_entries : forall (net : list rxn) (iso : list str), NoDup (map rid net) ->
  forall i j s e, nth_error (species_order net iso) i = Some s -> nth_error (reaction_order net) j = Some e ->
  nth j (nth i (build_S net iso) []) 0%Z = (produced s e - consumed s e)%Z /\
  nth j (nth i (S_minus net iso) []) 0%Z = consumed s e /\
  nth j (nth i (S_plus net iso) []) 0%Z = produced s e.
Proof.
  intros net iso ND i j s e Hi Hj.
  split; [apply S_entries | split; [apply (S_side_entry Reactant) | apply (S_side_entry Product)]]; assumption.
Qed.
Print Assumptions C17_S_entries.

(** (5) build_S equals the network's own incidence matrix (rows sorted species, columns sorted edge ids) up to the
        stated column order. *)
Theorem C17_S_incidence : forall (net : list rxn) (iso : list str), NoDup (map rid net) ->
  species_order net iso = species_set net iso /\
  Permutation (reaction_order net) (edges_sorted net) /\
  forall i j j' s e, nth_error (species_order net iso) i = Some s ->
    nth_error (reaction_order net) j = Some e -> nth_error (edges_sorted net) j' = Some e ->
    nth j (nth i (build_S net iso) []) 0%Z = nth j' (nth i (incidence net iso) []) 0%Z.
Proof. exact S_incidence. Qed.
Print Assumptions C17_S_incidence.

(** (6) a checked rank certificate gives the exact rank over the rationals (MathComp \rank), for every integer matrix;
        the kernels have dimensions m - r and n - r. *)
Theorem C17_rank_cert_sound : forall (m n : nat) (S : list (list Z)) (c : rcert),
  rank_checked m n S c = true ->
  let F := mathcomp.algebra.rat.rat_fieldType in
  let M := SK.lib.RankBridge.toM m n S in
  @mathcomp.algebra.mxalgebra.mxrank F m n M = rc_r c /\
  @mathcomp.algebra.mxalgebra.mxrank F m m (@mathcomp.algebra.mxalgebra.kermx F m n M) = (m - rc_r c)%nat /\
  @mathcomp.algebra.mxalgebra.mxrank F n n
     (@mathcomp.algebra.mxalgebra.kermx F n m (@mathcomp.algebra.matrix.trmx mathcomp.algebra.rat.rat m n M)) = (n - rc_r c)%nat.
Proof.
  intros m n S c H. split; [apply SK.proof.C17_Rank.rank_checked_sound; exact H|].
  exact (SK.proof.C17_Rank.kernel_dims H).
Qed.
Print Assumptions C17_rank_cert_sound.

(** (7) conservativity certificates (Stiemke, easy direction), for every integer matrix. *)
Theorem C17_pos_cert_sound : forall (n : nat) (S : list (list Z)) (y : list Z),
  check_pos n S y = true ->
  exists y, length y = length S /\ Forall (fun t => (0 < t)%Z) y /\ Forall (fun t => t = 0%Z) (vecmat n y S).
Proof. exact pos_cert_sound. Qed.
Print Assumptions C17_pos_cert_sound.

Theorem C17_neg_cert_sound : forall (n : nat) (S : list (list Z)) (x : list Z),
  check_neg n S x = true ->
  ~ exists y, length y = length S /\ Forall (fun t => (0 < t)%Z) y /\ Forall (fun t => t = 0%Z) (vecmat n y S).
Proof. exact neg_cert_sound. Qed.
Print Assumptions C17_neg_cert_sound.

(** (8) consistency certificates. *)
Theorem C17_flux_pos_cert_sound : forall (n : nat) (S : list (list Z)) (v : list Z),
  check_fpos n S v = true ->
  exists v, length v = n /\ Forall (fun t => (0 < t)%Z) v /\ Forall (fun t => t = 0%Z) (matvec S v).
Proof. exact fpos_cert_sound. Qed.
Print Assumptions C17_flux_pos_cert_sound.

Theorem C17_flux_neg_cert_sound : forall (n : nat) (S : list (list Z)) (y : list Z),
  check_fneg n S y = true ->
  ~ exists v, length v = n /\ Forall (fun t => (0 < t)%Z) v /\ Forall (fun t => t = 0%Z) (matvec S v).
Proof. exact fneg_cert_sound. Qed.
Print Assumptions C17_flux_neg_cert_sound.

(** (9) a checked certificate DECIDES the question (what the per-input comparison relies on). *)
Theorem C17_cert_decides : forall (n : nat) (S : list (list Z)) (c : fcert) (b : bool),
  (decide_conservative n S c = Some b -> (b = true <-> conservative n S)) /\
  (decide_consistent n S c = Some b -> (b = true <-> consistent n S)).
Proof. intros n S c b. split; [apply decide_conservative_sound | apply decide_consistent_sound]. Qed.
Print Assumptions C17_cert_decides.

(** (10) the code's verdict logic never reports a law / flux that does not exist, provided the numerics it consults
         are sound (explicit premises: a sign-definite kernel basis column / an LP solution is a genuine witness). *)
Theorem C17_verdicts_sound : forall (k kr n : nat) (S : list (list Z)) (nm : numerics),
  (nm_scanL nm = true -> conservative n S) -> (nm_lpL nm = true -> conservative n S) ->
  (nm_lpR nm = 0%nat -> consistent n S) -> (nm_scanR nm = true -> consistent n S) ->
  (conservative_verdict k nm = true -> conservative n S) /\
  (consistent_verdict kr nm = Some true -> consistent n S).
Proof.
  intros k kr n S nm H1 H2 H3 H4. split; [apply conservative_verdict_sound; auto | apply consistent_verdict_sound; auto].
Qed.
Print Assumptions C17_verdicts_sound.

(** (11) REFUTED for the code as it is (known finding, kept because two repository tests pin it): "reported
         conservative whenever a strictly positive law exists".  Witness A + B <-> C: conservative; B_ABC is a basis of
         its left kernel with no sign-definite column; the LP the code poses over it (min 1^T a, B a >= eps, a free;
         eps scaled to 1) is feasible and unbounded; on "no success" the code answers False. *)
Theorem C17_conservative_complete_refuted :
  exists (net : list rxn) (B : list (list Z)),
    let S := build_S net [] in
    conservative 2 S /\
    (forall j, (j < 2)%nat -> all_zero (vecmat 2 (col j B) S) = true) /\
    (forall j, (j < 2)%nat -> all_pos (col j B) = false /\ all_pos (map Z.opp (col j B)) = false) /\
    (exists a0, forallb (fun t => (1 <=? t)%Z) (matvec B a0) = true) /\
    (exists d, all_nonneg (matvec B d) = true /\ (fold_right Z.add 0%Z d < 0)%Z) /\
    conservative_verdict 2 (Num false false 0 false) = false.
Proof. exists net_ABC, B_ABC. exact conservative_complete_refuted. Qed.
Print Assumptions C17_conservative_complete_refuted.

(** (12) Node identifiers never matter.  The code computes labels, index dictionaries and the matrices on a bipartite
         graph whose nodes carry identifiers (integers 1..N+M of the hypergraph export, strings, anything a caller
         chose): nodes are sorted by label, the row / column of a node is looked up BY IDENTIFIER, the matrices are
         filled arc by arc (model/C17_NodeModel.v).  For every network and EVERY injective assignment of identifiers to
         species and reactions this gives exactly the species labels, reaction labels, S_minus, S_plus and S of the
         label-level model — so theorems (1)-(5) hold for it: row i belongs to label i whatever the identifiers look
         like (two-digit, permuted, ordered differently as strings and as numbers). *)
Theorem C17_S_node_ids : forall (ids idr : str -> N) (net : list rxn) (iso : list str),
  (forall s s', In s (species_set net iso) -> In s' (species_set net iso) -> ids s = ids s' -> s = s') ->
  (forall e e', In e net -> In e' net -> idr (rid e) = idr (rid e') -> rid e = rid e') ->
  NoDup (map rid net) ->
  let G := export ids idr net iso in
  node_labels (bg_species G) = species_order net iso /\
  node_labels (bg_rxns G) = map rrule (reaction_order net) /\
  fill Reactant G = S_minus net iso /\
  fill Product G = S_plus net iso /\
  build_S_nodes G = build_S net iso.
Proof. exact nodes_refine. Qed.
Print Assumptions C17_S_node_ids.

(** (13) The same for the form the correspondence evaluates on every case ([run_ids] computes these five slots on
         [graph_of net iso sid rids], with the identifiers read off the graph the implementation really used). *)
Theorem C17_S_node_ids_observed : forall (net : list rxn) (iso : list str) (sid rids : list N),
  NoDup (map rid net) ->
  NoDup sid -> length sid = length (species_set net iso) ->
  NoDup rids -> length rids = length net ->
  let G := graph_of net iso sid rids in
  node_labels (bg_species G) = species_order net iso /\
  node_labels (bg_rxns G) = map rrule (reaction_order net) /\
  fill Reactant G = S_minus net iso /\
  fill Product G = S_plus net iso /\
  build_S_nodes G = build_S net iso.
Proof. exact graph_of_refine. Qed.
Print Assumptions C17_S_node_ids_observed.

(** Integer scaling of kernel vectors (model coq/model/C17_IntLaws.v: Fraction.limit_denominator, _lcm,
    _vector_to_minimal_integer, integer_conservation_laws — a float is the exact rational float.as_integer_ratio()).
    limit_denominator: for every bound >= 1 and every fraction with a positive denominator the result has a positive
    denominator within the bound, and a fraction whose denominator is within the bound is returned unchanged. *)
Theorem C17_limit_denominator_bound :
  forall (maxd : Z) (x : frac), (1 <= maxd)%Z -> (0 < snd x)%Z ->
  (0 < snd (limit_denominator maxd x) <= maxd)%Z.
Proof. exact limit_denominator_bound. Qed.
Print Assumptions C17_limit_denominator_bound.

Theorem C17_limit_denominator_exact :
  forall (maxd : Z) (x : frac), (snd x <= maxd)%Z -> limit_denominator maxd x = x.
Proof. exact limit_denominator_exact. Qed.
Print Assumptions C17_limit_denominator_exact.

(** _vector_to_minimal_integer outside its two float-rounding fall-backs (where the model answers None), for every tolerance
    and every vector of floats: the answer has the length of the input; it is the zero vector exactly when every entry is
    within the tolerance; otherwise its entries have gcd 1 and it is the vector of rational approximations
    ([approx]: 0 within the tolerance, else limit_denominator(10^6)) scaled by ONE positive rational L / g with L <= 10^6 —
    a minimal integer vector positively proportional to the approximations (signs and zero pattern preserved). *)
Theorem C17_integer_law_minimal :
  forall (tol : frac) (vec : list frac) (out : list Z),
  Forall (fun x => (0 < snd x)%Z) vec ->
  min_int_vec tol vec = Some out ->
  length out = length vec /\
  ((forallb (fun x => abs_le x tol) vec = true /\ out = map (fun _ => 0%Z) vec) \/
   (forallb (fun x => abs_le x tol) vec = false /\
    gcd_list out = 1%Z /\
    exists L g, (0 < L <= MAXD)%Z /\ (0 < g)%Z /\
      Forall2 (fun o f => (o * g * snd f = fst f * L)%Z) out (map (approx tol) vec))).
Proof.
  intros tol vec out Hpos H. split; [exact (min_int_vec_length tol vec out H)|exact (min_int_vec_spec tol vec out Hpos H)].
Qed.
Print Assumptions C17_integer_law_minimal.

(** integer_conservation_laws: one answer per basis column, in column order, each computed from its own column only. *)
Theorem C17_integer_laws_columns :
  forall (tol : frac) (cols : list (list frac)),
  length (int_laws tol cols) = length cols /\
  forall k col, nth_error cols k = Some col -> nth_error (int_laws tol cols) k = Some (min_int_vec tol col).
Proof. exact int_laws_columns. Qed.
Print Assumptions C17_integer_laws_columns.

(** Attribute layer (model coq/model/C17_RawModel.v: _split_species_reactions, the label fall-back, the end-point and
    role / stoich reading of build_S_minus_plus on a caller-supplied graph whose nodes and edges carry only SOME of the documented
    attributes).  Everything the code computes from such a graph goes through [normalise]; and [normalise] — hence the labels, index
    dictionaries and matrices, and whether KeyError is raised — depends only on: each node's identifier, its two classification
    tests (kind == "species" or bipartite == 0 / kind == "reaction" or bipartite == 1) and its EFFECTIVE label (the label, else
    str(node)); each edge's end points, role and EFFECTIVE coefficient (stoich, else 1).  So it does not matter which of kind /
    bipartite carries the classification, whether a label is written out or falls back to the identifier, or whether a coefficient 1
    is written out. *)
Theorem C17_attributes_normalised :
  forall (G G' : rgraph),
  Forall2 (fun a b => rn_id a = rn_id b /\ species_like a = species_like b /\ reaction_like a = reaction_like b /\
                      label_of a = label_of b) (rg_nodes G) (rg_nodes G') ->
  Forall2 (fun e f => re_u e = re_u f /\ re_v e = re_v f /\ re_role e = re_role f /\
                      match re_stoich e with Some c => c | None => 1%Z end =
                      match re_stoich f with Some c => c | None => 1%Z end) (rg_edges G) (rg_edges G') ->
  normalise G = normalise G' /\ key_error G = key_error G' /\ run_raw G = run_raw G'.
Proof.
  (* the two relations are [node_eqv] and [edge_eqv] of proof/C17_Raw.v, written out *)
  intros G G' Hn He. destruct (normalise_eqv G G' Hn He) as [H1 H2]. split; [exact H1|split; [exact H2|]].
  exact (run_raw_eqv G G' Hn He).
Qed.
Print Assumptions C17_attributes_normalised.

(** an edge without a usable role, or one that does not join a species-like to a reaction-like node (species-species,
    reaction-reaction, an end without classification), contributes nothing *)
Theorem C17_foreign_edges_ignored :
  forall (G : rgraph) (e : redge), re_role e = None \/ ends G e = None -> arc_of G e = [].
Proof. exact arc_of_ignored. Qed.
Print Assumptions C17_foreign_edges_ignored.

(** The fully annotated export seen through the attribute layer: for every network, every assignment of node identifiers in which a
    species and a reaction never share an identifier, and whatever str(node) is, [normalise] of the raw export (kind, bipartite and
    label on every node; role and stoich on every arc; reactant arcs species -> reaction, product arcs reaction -> species) IS the
    node-level export of model/C17_NodeModel.v and no KeyError is raised.  With [C17_attributes_normalised] the same holds for every
    graph that is attribute-equivalent to it (classification carried by kind or by bipartite only, labels left to the identifiers,
    coefficients 1 left out), and [C17_S_node_ids] then gives: its labels and matrices are those of the label-level model. *)
Theorem C17_raw_export_normalised :
  forall (ids idr : str -> N) (strs : N -> str) (net : list rxn) (iso : list str),
  (forall s e, In s (species_set net iso) -> In e net -> ids s <> idr (rid e)) ->
  normalise (raw_export ids idr strs net iso) = export ids idr net iso /\
  key_error (raw_export ids idr strs net iso) = false.
Proof. exact normalise_raw_export. Qed.
Print Assumptions C17_raw_export_normalised.

(** Undirected inputs at the attribute level (conversion.py:_as_bipartite on an nx.Graph; [orient_raw]: every stored edge is oriented by
    its role, the reaction end found by kind == "reaction" or (kind absent and bipartite == 1)).  For every network, every identifier
    assignment with species and reaction ids distinct and WHICHEVER way the undirected graph stores each edge ([flips]), orienting gives
    back the directed raw export — so [C17_raw_export_normalised] (and with it [C17_S_node_ids]) covers undirected inputs
    ([run_raw_und] evaluates the attribute layer after [orient_raw] on the graph as networkx stores it). *)
Theorem C17_undirected_raw_input :
  forall (ids idr : str -> N) (strs : N -> str) (net : list rxn) (iso : list str) (flips : list bool),
  (forall s e, In s (species_set net iso) -> In e net -> ids s <> idr (rid e)) ->
  orient_raw (undirected_raw flips (raw_export ids idr strs net iso)) = raw_export ids idr strs net iso.
Proof. intros ids idr strs net iso flips H. exact (orient_undirected_raw ids idr strs net iso H flips). Qed.
Print Assumptions C17_undirected_raw_input.

(** The code paths taken when SciPy cannot be imported (module flag _SCIPY_AVAILABLE False; model coq/model/C17_Fallback.v, evaluated on
    a slice of the population with the flag switched off: exact kernel dimensions from the certified rank, fall-back verdicts).
    Whenever the fall-back verdict of is_conservative is definite it is the verdict of the SciPy path whatever the LP would answer. *)
Theorem C17_noscipy_agrees :
  forall (k : nat) (scanL b : bool),
  conservative_verdict_noscipy k scanL = Some b ->
  forall (lpL : bool) (lpR : nat) (scanR : bool), conservative_verdict k (Num scanL lpL lpR scanR) = b.
Proof. exact noscipy_conservative_agrees. Qed.
Print Assumptions C17_noscipy_agrees.

(** Under the same premise as [C17_verdicts_sound] (a sign-definite basis column is a law / a flux) a positive fall-back verdict is true. *)
Theorem C17_noscipy_verdicts_sound :
  forall (k kr n : nat) (S : list (list Z)) (scanL scanR : bool),
  (scanL = true -> conservative n S) -> (scanR = true -> consistent n S) ->
  (conservative_verdict_noscipy k scanL = Some true -> conservative n S) /\
  (consistent_verdict_noscipy kr scanR = Some true -> consistent n S).
Proof. exact noscipy_verdicts_sound. Qed.
Print Assumptions C17_noscipy_verdicts_sound.

(** Fractional coefficients: a caller-supplied graph whose coefficients are c / d (d > 0 a common denominator) has the integer matrix
    d * S_Q; a strictly positive conservation law / steady flux exists for d * S exactly when it exists for S — the fractional graph
    views of the population are judged against the integer network. *)
Theorem C17_scaling_invariant :
  forall (d : Z) (n : nat) (S : list (list Z)), (0 < d)%Z ->
  (conservative n (mscale d S) <-> conservative n S) /\ (consistent n (mscale d S) <-> consistent n S).
Proof. exact scaling_invariant. Qed.
Print Assumptions C17_scaling_invariant.

(** Completeness direction of is_consistent ("consistent exactly when a strictly positive steady flux exists"), CONDITIONALLY: the
    verdict is True as soon as the LP answers "success, relative residual <= 1e-8" ([nm_lpR] = 0) — that HiGHS does so whenever a
    strictly positive flux exists is the SOLVER premise: tested per input against the certified truth (oracle clause `consistent`,
    exhaustive small scope + random + textbook networks), never proved.  None (inconclusive) is answered exactly when the LP gave no
    usable answer, the right kernel is non-trivial and no basis column is sign definite.  (For conservativity the unconditional
    converse is refuted: [C17_conservative_complete_refuted].) *)
Theorem C17_consistent_complete_conditional :
  forall (kr : nat) (nm : numerics),
  (nm_lpR nm = 0%nat -> consistent_verdict kr nm = Some true) /\
  (consistent_verdict kr nm = None <-> (2 <= nm_lpR nm)%nat /\ kr <> 0%nat /\ nm_scanR nm = false).
Proof. intros kr nm. split; [exact (consistent_verdict_lp_ok kr nm)|exact (consistent_verdict_none kr nm)]. Qed.
Print Assumptions C17_consistent_complete_conditional.

(** [C17_rank_cert_sound] at exactly the arguments [run] / [run_noscipy] evaluate: for every network, a checked certificate gives the
    rank of ITS stoichiometric matrix [build_S net iso] (rows = species, columns = reactions) over the rationals and both kernel
    dimensions (species - rank, reactions - rank). *)
Theorem C17_rank_of_network : forall (net : list rxn) (iso : list str) (c : rcert),
  let m := length (species_order net iso) in
  let n := length (reaction_order net) in
  rank_checked m n (build_S net iso) c = true ->
  let F := mathcomp.algebra.rat.rat_fieldType in
  let M := SK.lib.RankBridge.toM m n (build_S net iso) in
  @mathcomp.algebra.mxalgebra.mxrank F m n M = rc_r c /\
  @mathcomp.algebra.mxalgebra.mxrank F m m (@mathcomp.algebra.mxalgebra.kermx F m n M) = (m - rc_r c)%nat /\
  @mathcomp.algebra.mxalgebra.mxrank F n n
     (@mathcomp.algebra.mxalgebra.kermx F n m (@mathcomp.algebra.matrix.trmx mathcomp.algebra.rat.rat m n M)) = (n - rc_r c)%nat.
Proof. intros net iso c m n H. exact (C17_rank_cert_sound m n (build_S net iso) c H). Qed.
Print Assumptions C17_rank_of_network.

(** [C17_verdicts_sound] with its premises CHECKED instead of assumed: the observable of every network case ends with
    [premises_ok] = implb(flag of the external numerics, certified truth) for the four flags (sign scan of the left basis, LP of
    _positive_conservation_law_from_basis, LP of is_consistent accepted, sign scan of the right basis), compared with four Trues on
    every run.  Whenever that slot is all true the verdict logic is sound on that input — no assumption about numpy / scipy / HiGHS
    is left: a positive verdict comes with a checked certificate. *)
Theorem C17_verdicts_sound_checked :
  forall (k kr n : nat) (S : list (list Z)) (cc fc : fcert) (nm : numerics),
  premises_ok n S cc fc nm = [true; true; true; true] ->
  (conservative_verdict k nm = true -> conservative n S) /\
  (consistent_verdict kr nm = Some true -> consistent n S).
Proof. exact verdicts_sound_checked. Qed.
Print Assumptions C17_verdicts_sound_checked.
