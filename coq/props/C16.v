(** C16 — network views (bipartite graph, reaction strings, species graph) round-trip exactly.
    Statements only; the proofs point at the lemmas of proof/C16_*.v ([C16_as_bipartite_defaults] holds by computation).

    Vocabulary (coq/proof/C16_Defs.v, all decidable):
      [wf16 H]          no stored reaction is empty or has an empty rule name; every species occurring in a reaction is
                        registered and has a non-empty index entry; [order] is a duplicate-free enumeration of the ids;
                        molecule labels only for registered species.  Implied by the store invariant of C15 ([C16_inv_wf]).
      [strings_domain]  (7-bit ASCII text) rules non-empty and blank-free; species labels = a letter followed by any characters
                        except white space and the format's own separators + * | >  (the parser's pattern "digits, letter, anything"):
                        identifiers, formulae and SMILES-like labels, e.g. CC(=O)O, C#C, Fe(OH)3 ([ex_label_domain]).
      [rxns_of H]       the stored reactions (rule, reactants, products) as a list; multiset equality is [≡ₚ]. *)
From stdpp Require Import gmap strings sets.
From SK Require Import lib.Tok model.C15_Model proof.C15_Proof model.C16_Model proof.C16_Defs proof.C16_Chars proof.C16_Str proof.C16_Sg proof.C16_BipA proof.C16_BipB proof.C16_BipNum proof.C16_BipMarker proof.C16_Reach proof.C16_SgMol proof.C16_SgRules proof.C16_StrItems proof.C16_StrOrder model.C16_Edit proof.C16_BipArcs proof.C16_BipDrop proof.C16_SgDrop proof.C16_SgLegacy model.C16_Undirected proof.C16_Undirected.
Local Open Scope string_scope.

(** every network reachable through the store operations (C15_inv_reachable) satisfies the decidable premise used below *)
Theorem C16_inv_wf : ∀ H : net, Inv H → wf16 H.
Proof. exact Inv_wf16. Qed.
Print Assumptions C16_inv_wf.

(** every network the correspondence evaluates ([mk_net] = harness/props/C16.py:build: adds, kept species, labels) is well formed *)
Theorem C16_generated_wf : ∀ kept rxns mols, wf16 (mk_net kept rxns mols).
Proof. exact mk_net_wf16. Qed.
Print Assumptions C16_generated_wf.

(** ... and stays so under in-place edits with the public mutators (the history cases edit ONE object between views) *)
Theorem C16_edited_wf : ∀ kept rxns mols (eds : list edit), wf16 (foldl apply_edit (mk_net kept rxns mols) eds).
Proof. exact edited_wf16. Qed.
Print Assumptions C16_edited_wf.

(** every network an importer or the parser builds satisfies the store invariant of C15 ([Inv], spelled out in
    C15_inv_meaning: both indices exact, species = occurring (+ kept), labels only for present species, ids unique, no empty
    reaction) — from ANY graph and ANY text, with any flags, also when the call raises midway: what was stored before stays,
    consistently indexed ([ex_built_inv_nonvacuous]: a parse failing at its third line keeps two reactions). *)
Theorem C16_built_networks_consistent :
  (∀ (ifl : iflags) (G : bgraph), Inv (bipartite_to_hypergraph ifl G).1) ∧
  (∀ (pick : gset string → string) (default_rule : string) (mol_attr : bool) (G : sgraph),
     Inv (species_graph_to_hypergraph pick default_rule mol_attr G).1) ∧
  (∀ (lines : list string) (default_rule : string) (parse_suffix prefer_suffix : bool),
     Inv (rxns_to_hypergraph lines default_rule parse_suffix prefer_suffix).1) ∧
  (∀ (s : net) (items : list (string * option string)) (default_rule : string) (parse_suffix prefer_suffix : bool),
     Inv s → Inv (parse_items s items default_rule parse_suffix prefer_suffix).1) ∧
  (∀ (s : net) (line : string) (rule : option string) (parse_suffix : bool), Inv s → Inv (add_from_str s line rule parse_suffix).1).
Proof.
  exact (conj bipartite_import_Inv (conj species_graph_import_Inv (conj rxns_to_hypergraph_Inv (conj parse_items_Inv add_from_str_Inv)))).
Qed.
Print Assumptions C16_built_networks_consistent.

(** the documented meaning of [default_rule] — "used when neither an explicit rule nor
    a suffix is provided": with suffix parsing ON, a line whose suffix (text after the first "|") carries no rule=… is stored under
    [default_rule]; one that carries a rule keeps it ([suffix_rule] = the test add_rxn_from_str itself makes), not under add_rxn's
    "r" ([ex_default_rule]: rxns_to_hypergraph([..., "2A>>D"], default_rule="R0") stores R0_1). *)
Theorem C16_parse_default_rule : ∀ (s : net) (line default_rule : string) (prefer_suffix : bool),
  parse_rxns s [line] default_rule true prefer_suffix
  = add_from_str s line (match suffix_rule line with Some _ => None | None => Some default_rule end) true.
Proof. exact parse_rxns_one. Qed.
Print Assumptions C16_parse_default_rule.

(** ** Bipartite species/reaction graph *)

(** every export flag combination that exports the reaction ids and the coefficients (string node ids with any prefix
    pair, or integer node ids; roles, isolated species, bipartite marker values and mol attributes on or off) followed
    by an import with ANY import flags: no error, the same id -> (rule, reactants, products) map, the species of the
    rebuilt network are the species occurring in reactions, and the molecule labels of those species come back exactly
    (when exported and imported; none otherwise).  [bip_names_ok] (decidable): integer ids, or no species node gets the
    same string id as a reaction node — automatic for the default prefixes "S:" / "R:", needed for un-prefixed ids
    ([ex_bip_names_needed] in proof/C16_BipB.v). *)
Theorem C16_bipartite_roundtrip : ∀ (fl : bflags) (ifl : iflags) (H : net),
  wf16 H → f_eid fl = true → f_stoich fl = true → bip_names_ok fl H →
  (bipartite_to_hypergraph ifl (hypergraph_to_bipartite fl H)).2 = None ∧
  edges (bipartite_to_hypergraph ifl (hypergraph_to_bipartite fl H)).1 = edges H ∧
  species (bipartite_to_hypergraph ifl (hypergraph_to_bipartite fl H)).1 = occurring H ∧
  mol (bipartite_to_hypergraph ifl (hypergraph_to_bipartite fl H)).1
    = if f_mol fl && i_mol ifl then filter (λ p, p.1 ∈ occurring H) (mol H) else ∅.
Proof. exact bipartite_roundtrip. Qed.
Print Assumptions C16_bipartite_roundtrip.

(** the same without the premise on `include_stoich`: EVERY flag combination that exports the ids.  Without coefficients on
    the arcs the importer reads each as 1, so exactly the supports come back (same ids, rules, species sets per side, every
    coefficient 1) — the precise sense in which include_stoich=False is not invertible; with coefficients this is the theorem
    above. *)
Theorem C16_bipartite_roundtrip_any_stoich : ∀ (fl : bflags) (ifl : iflags) (H : net),
  wf16 H → f_eid fl = true → bip_names_ok fl H →
  (bipartite_to_hypergraph ifl (hypergraph_to_bipartite fl H)).2 = None ∧
  edges (bipartite_to_hypergraph ifl (hypergraph_to_bipartite fl H)).1
    = (λ rx, Rxn (r_rule rx) ((λ c, if f_stoich fl then c else 1%positive) <$> r_lhs rx)
                             ((λ c, if f_stoich fl then c else 1%positive) <$> r_rhs rx)) <$> edges H ∧
  species (bipartite_to_hypergraph ifl (hypergraph_to_bipartite fl H)).1 = occurring H ∧
  mol (bipartite_to_hypergraph ifl (hypergraph_to_bipartite fl H)).1
    = if f_mol fl && i_mol ifl then filter (λ p, p.1 ∈ occurring H) (mol H) else ∅.
Proof. exact bipartite_roundtrip_gen. Qed.
Print Assumptions C16_bipartite_roundtrip_any_stoich.

(** outside [bip_names_ok] the clause fails (known finding C16:bipartite-name-clash): un-prefixed string ids, species label "r_1"
    = generated reaction id r_1 — one node for both, the import returns a different network *)
Theorem C16_bipartite_unprefixed_refuted :
  bool_decide (wf16 ex_bip_clash) = true ∧ bool_decide (bip_names_ok ex_fl_bare ex_bip_clash) = false ∧
  bool_decide (edges ex_bip_clash_back = edges ex_bip_clash) = false.
Proof. exact ex_bip_names_needed. Qed.
Print Assumptions C16_bipartite_unprefixed_refuted.

(** instance: every network reachable by any history of store operations (C15), default prefixes *)
Theorem C16_bipartite_roundtrip_reachable : ∀ (n : nat) (ops : list op) (k : nat) (fl : bflags) (ifl : iflags),
  f_eid fl = true → f_stoich fl = true → f_sp fl = Some "S:" → f_rp fl = Some "R:" →
  edges (bipartite_to_hypergraph ifl (hypergraph_to_bipartite fl
           (getn (fold_left (λ w o, (step w o).1) ops (init_world n)) k))).1
  = edges (getn (fold_left (λ w o, (step w o).1) ops (init_world n)) k).
Proof. exact reachable_bipartite_roundtrip. Qed.
Print Assumptions C16_bipartite_roundtrip_reachable.

(** the default prefixes never clash *)
Theorem C16_default_prefixes_ok : ∀ (fl : bflags) (H : net),
  f_sp fl = Some "S:" → f_rp fl = Some "R:" → bip_names_ok fl H.
Proof. exact default_prefixes_ok. Qed.
Print Assumptions C16_default_prefixes_ok.

(** ** Reaction strings *)

(** the side printer and RXNSide.from_str are inverse on the label domain, whatever white space surrounds the text:
    coefficients of any size glued to the name ("12Cl2"), coefficient 1 omitted, " + " separators, the empty-side sign *)
Theorem C16_side_roundtrip : ∀ (sd : side) (pre post : list Ascii.ascii),
  side_labels_ok sd = true →
  Forall (λ a, py_space a = true) pre → Forall (λ a, py_space a = true) post →
  from_chars (pre ++ to_chars (fmt_side sd) ++ post) = Some sd.
Proof. exact from_chars_side. Qed.
Print Assumptions C16_side_roundtrip.

(** printing with the rule suffix (with or without the id suffix, sorted or in insertion order) and parsing with suffix
    parsing on (any default rule, any [prefer_suffix]) raises no error and gives the same multiset of
    (rule, reactants, products) *)
Theorem C16_strings_roundtrip : ∀ (H : net) (include_id sort prefer_suffix : bool) (default_rule : string),
  wf16 H → strings_domain H = true →
  (rxns_to_hypergraph (hypergraph_to_rxn_strings H true include_id sort) default_rule true prefer_suffix).2 = None ∧
  rxns_of (rxns_to_hypergraph (hypergraph_to_rxn_strings H true include_id sort) default_rule true prefer_suffix).1
    ≡ₚ rxns_of H.
Proof. exact strings_roundtrip. Qed.
Print Assumptions C16_strings_roundtrip.

(** Outside the label domain the string round trip fails: a label must start with a letter — coefficient 2 on "_x"
    prints as "2_x", which is read as ONE species (likewise "2[OH-]"; '+' as in "Na+" splits the term). *)
Theorem C16_label_domain_refuted :
  ∃ H : net, (rxns_to_hypergraph (hypergraph_to_rxn_strings H true false true) "r" true false).2 = None
             ∧ ¬ rxns_of (rxns_to_hypergraph (hypergraph_to_rxn_strings H true false true) "r" true false).1 ≡ₚ rxns_of H.
Proof. exact label_domain_refuted. Qed.
Print Assumptions C16_label_domain_refuted.

(** ** Species graph *)

(** for every network whose reactions all have reactants and products (no other premise), whatever the rule-picking
    function, default rule and mol flags: collapsing to the species graph and reconstructing raises no error and returns
    the same ids, each with its own reactant and product coefficient maps — also when several reactions share a species
    pair (one arc, per-reaction maps stoich_r_map / stoich_p_map, [sa_rmap] / [sa_pmap]).  Rules are not claimed (arcs shared by reactions
    with different rules merge the rule sets: [ex_sg_rules_merged]); two-sidedness is needed ([ex_sg_two_sided_needed]). *)
Theorem C16_species_graph_roundtrip :
  ∀ (pick : gset string → string) (default_rule : string) (include_mol mol_attr : bool) (H : net),
  two_sided H →
  (species_graph_to_hypergraph pick default_rule mol_attr (hypergraph_to_species_graph include_mol H)).2 = None ∧
  stoich_of <$> edges (species_graph_to_hypergraph pick default_rule mol_attr (hypergraph_to_species_graph include_mol H)).1
    = stoich_of <$> edges H.
Proof. exact species_graph_roundtrip. Qed.
Print Assumptions C16_species_graph_roundtrip.

(** the whole reconstructed network: for two-sided networks whose occurring species are registered (part of [wf16]), the
    species are the occurring species and the molecule labels of exactly those species come back (when exported and
    imported; none otherwise) — whatever the label VALUES are (the model carries them as opaque strings; falsy labels such
    as 0, "", False are ordinary values) *)
Theorem C16_species_graph_roundtrip_full :
  ∀ (pick : gset string → string) (default_rule : string) (include_mol mol_attr : bool) (H : net),
  two_sided H → occurring H ⊆ species H →
  (species_graph_to_hypergraph pick default_rule mol_attr (hypergraph_to_species_graph include_mol H)).2 = None ∧
  stoich_of <$> edges (species_graph_to_hypergraph pick default_rule mol_attr (hypergraph_to_species_graph include_mol H)).1
    = stoich_of <$> edges H ∧
  species (species_graph_to_hypergraph pick default_rule mol_attr (hypergraph_to_species_graph include_mol H)).1 = occurring H ∧
  mol (species_graph_to_hypergraph pick default_rule mol_attr (hypergraph_to_species_graph include_mol H)).1
    = if include_mol && mol_attr then filter (λ p, p.1 ∈ occurring H) (mol H) else ∅.
Proof. exact species_graph_roundtrip_full. Qed.
Print Assumptions C16_species_graph_roundtrip_full.

(** ** parse_rxns with explicit per-line rules (tuples, mapping, rules=) *)
(** [print_items H sort] = the (id, reaction) pairs in printing order; [hypergraph_to_rxn_strings H ir ii sort] is
    [fmt_line ir ii] mapped over it ([printed_lines]). *)

Theorem C16_parse_plain_is_items : ∀ s lines dr ps pf,
  parse_items s ((λ l, (l, None)) <$> lines) dr ps pf = parse_rxns s lines dr ps pf.
Proof. exact parse_items_plain. Qed.
Print Assumptions C16_parse_plain_is_items.

(** rules carried out of band: printing WITHOUT suffixes and handing every line its rule explicitly reproduces the multiset
    of reactions with rules, for every combination of the parser flags *)
Theorem C16_strings_roundtrip_explicit_rules : ∀ (H : net) (sort : bool) (dr : string) (ps pf : bool),
  wf16 H → strings_domain H = true →
  (parse_items empty_net ((λ p, (fmt_line false false p.1 p.2, Some (r_rule p.2))) <$> print_items H sort) dr ps pf).2 = None ∧
  rxns_of (parse_items empty_net ((λ p, (fmt_line false false p.1 p.2, Some (r_rule p.2))) <$> print_items H sort) dr ps pf).1
    ≡ₚ rxns_of H.
Proof. exact strings_roundtrip_explicit_rules. Qed.
Print Assumptions C16_strings_roundtrip_explicit_rules.

(** with [prefer_suffix] the printed rule suffix wins over ANY explicit per-line rule [q] (present or not) *)
Theorem C16_strings_roundtrip_prefer_suffix :
  ∀ (H : net) (include_id sort : bool) (dr : string) (q : string → rxn → option string),
  wf16 H → strings_domain H = true →
  (parse_items empty_net ((λ p, (fmt_line true include_id p.1 p.2, q p.1 p.2)) <$> print_items H sort) dr true true).2 = None ∧
  rxns_of (parse_items empty_net ((λ p, (fmt_line true include_id p.1 p.2, q p.1 p.2)) <$> print_items H sort) dr true true).1
    ≡ₚ rxns_of H.
Proof. exact strings_roundtrip_prefer_suffix. Qed.
Print Assumptions C16_strings_roundtrip_prefer_suffix.

(** printing in insertion order ([sort=False]) and parsing back keeps the SEQUENCE of reactions ([rxn_seq] = the stored
    (rule, reactants, products) in insertion order; ids are regenerated); with [sort=True] the sequence follows the sorted
    ids instead ([ex_order]) *)
Theorem C16_strings_roundtrip_order : ∀ (H : net) (include_id prefer_suffix : bool) (default_rule : string),
  wf16 H → strings_domain H = true →
  rxn_seq (rxns_to_hypergraph (hypergraph_to_rxn_strings H true include_id false) default_rule true prefer_suffix).1 = rxn_seq H.
Proof. exact strings_roundtrip_order. Qed.
Print Assumptions C16_strings_roundtrip_order.

(** the facades take their defaults from here: _as_bipartite without keywords = integer ids, "S:"/"R:", coefficients, roles,
    isolated species, no edge-id attribute, no mol *)
Theorem C16_as_bipartite_defaults : ∀ H : net,
  as_bipartite None None None None H
  = hypergraph_to_bipartite (BFlags (Some "S:") (Some "R:") 0 1 true true true true false false) H.
Proof. reflexivity. Qed.
Print Assumptions C16_as_bipartite_defaults.

(** ** Species graph: the rules too, when reactions sharing a species pair agree on their rule *)
(** [rules_agree H]: two reactions that have a common (reactant, product) pair carry the same rule (then every merged rule
    set is a singleton and the arbitrary pick — any [pick] with [pick {x} = x], as next(iter(set)) — is determined).  Under this
    premise the whole id ↦ (rule, reactants, products) map is reproduced. *)
Theorem C16_species_graph_roundtrip_rules :
  ∀ (pick : gset string → string) (default_rule : string) (include_mol mol_attr : bool) (H : net),
  (∀ x, pick {[ x ]} = x) → two_sided H → wf_rxns H →
  (∀ e e' rx rx' u v, edges H !! e = Some rx → edges H !! e' = Some rx' →
     is_Some (r_lhs rx !! u) → is_Some (r_rhs rx !! v) → is_Some (r_lhs rx' !! u) → is_Some (r_rhs rx' !! v) →
     r_rule rx = r_rule rx') →
  (species_graph_to_hypergraph pick default_rule mol_attr (hypergraph_to_species_graph include_mol H)).2 = None ∧
  edges (species_graph_to_hypergraph pick default_rule mol_attr (hypergraph_to_species_graph include_mol H)).1 = edges H.
Proof. exact species_graph_roundtrip_rules. Qed.
Print Assumptions C16_species_graph_roundtrip_rules.

(** ** Bipartite export, integer_ids=True: the documented numbering *)
(** "species ids are 1..N and reactions N+1..N+M": the i-th exported species in sorted label order is node i+1 (with its
    species attributes), the j-th reaction in sorted id order is node N+j+1 (N = number of exported species) *)
Theorem C16_bipartite_integer_numbering : ∀ (fl : bflags) (H : net), f_int fl = true → wf_species H →
  (∀ i s, species_iter fl H !! i = Some s →
     b_nodes (hypergraph_to_bipartite fl H) !! inl (N.of_nat i + 1)%N = Some (sp_attrs fl H s)) ∧
  (∀ j e rx, sort_by_key (map_to_list (edges H)) !! j = Some (e, rx) →
     b_nodes (hypergraph_to_bipartite fl H) !! inl (N.of_nat (length (species_iter fl H) + j) + 1)%N
     = Some (rx_attrs fl e (r_rule rx))).
Proof. exact bipartite_numbering. Qed.
Print Assumptions C16_bipartite_integer_numbering.

(** ** The `bipartite` node marker is opaque *)
(** bipartite_to_hypergraph never reads the networkx `bipartite` marker: erasing it from every node ([strip_bip]) does not
    change the import — for ANY graph and import flags.  So graphs that differ only in their markers (default (0,1), swapped
    (1,0), booleans, equal values, strings: all just attribute values) import to the same network; together with
    C16_bipartite_roundtrip (which quantifies over all bipartite_values, [f_bv_s] / [f_bv_r]) the round trip holds for every marker pair. *)
Theorem C16_import_ignores_marker : ∀ (ifl : iflags) (G : bgraph),
  bipartite_to_hypergraph ifl (BGraph ((λ nd, BNode None (bn_label nd) (bn_kind nd) (bn_mol nd) (bn_eid nd)) <$> b_nodes G) (b_arcs G))
  = bipartite_to_hypergraph ifl G.
Proof. exact import_ignores_marker. Qed.
Print Assumptions C16_import_ignores_marker.

(** ** Importing an exported graph after the caller DELETED attributes from it *)
(** model/C16_Edit.v: [drop_attrs d G] removes, per node class (read off `kind` first), the attributes `kind` / `label` of the
    species nodes / of the reaction nodes, `stoich` / `role` of every arc, `mol` / the `bipartite` marker of every node.
    The importer has a fall-back for each of them (kind: node-id prefixes, then degrees; label: str(node) for a species, the
    default rule for a reaction; stoich: 1; mol: no label), and the round trip of C16_bipartite_roundtrip SURVIVES the deletion of
    everything the fall-backs can re-derive.  All premises are written out (they are decidable: [edit_ok] in proof/C16_BipDrop.v):
      - `stoich`, `role`, `mol`, the marker: no premise (without `stoich` every coefficient is read as 1: the supports come back,
        as for include_stoich=False, C16_bipartite_roundtrip_any_stoich);
      - integer node ids carry no prefix: `kind` and the species `label` must stay;
      - species nodes without `kind`: the importer's species prefix is the exporter's;
      - species nodes without `label`: the exporter used no species prefix (the node id IS the label);
      - reaction nodes without `kind`: the importer's reaction prefix is the exporter's and the importer's species prefix matches
        no reaction node id;
      - reaction nodes without `label`: every rule is the importer's default rule.
    Premises needed: [ex_edit_int_needed], [ex_edit_prefix_needed]; non-vacuity [ex_edit_untagged], [ex_edit_bare], [ex_edit_arcs]. *)
Theorem C16_bipartite_roundtrip_edited : ∀ (fl : bflags) (ifl : iflags) (d : drops) (H : net),
  wf16 H → f_eid fl = true → bip_names_ok fl H →
  ((f_int fl = true → d_kind_sp d = false ∧ d_kind_rx d = false ∧ d_label_sp d = false) ∧
   (d_kind_sp d = true → i_sp ifl = default "" (f_sp fl)) ∧
   (d_label_sp d = true → default "" (f_sp fl) = "") ∧
   (d_kind_rx d = true → i_rp ifl = default "" (f_rp fl) ∧
      map_Forall (λ e _, String.prefix (i_sp ifl) (default "" (f_rp fl) +:+ e) = false) (edges H)) ∧
   (d_label_rx d = true → map_Forall (λ _ rx, r_rule rx = i_default_rule ifl) (edges H))) →
  (bipartite_to_hypergraph ifl (drop_attrs d (hypergraph_to_bipartite fl H))).2 = None ∧
  edges (bipartite_to_hypergraph ifl (drop_attrs d (hypergraph_to_bipartite fl H))).1
    = (λ rx, Rxn (r_rule rx) ((λ c, if f_stoich fl && negb (d_stoich d) then c else 1%positive) <$> r_lhs rx)
                             ((λ c, if f_stoich fl && negb (d_stoich d) then c else 1%positive) <$> r_rhs rx)) <$> edges H ∧
  species (bipartite_to_hypergraph ifl (drop_attrs d (hypergraph_to_bipartite fl H))).1 = occurring H ∧
  mol (bipartite_to_hypergraph ifl (drop_attrs d (hypergraph_to_bipartite fl H))).1
    = if f_mol fl && i_mol ifl && negb (d_mol d) then filter (λ p, p.1 ∈ occurring H) (mol H) else ∅.
Proof. exact bipartite_roundtrip_edited. Qed.
Print Assumptions C16_bipartite_roundtrip_edited.

(** deleting `stoich` / `role` from every arc of an exported graph gives EXACTLY the graph the exporter builds with
    include_stoich / include_role switched off (the deletion commutes with every step of the export) *)
Theorem C16_delete_arc_attrs_is_export_flag : ∀ (fl : bflags) (d : drops) (H : net),
  hypergraph_to_bipartite (BFlags (f_sp fl) (f_rp fl) (f_bv_s fl) (f_bv_r fl) (f_stoich fl && negb (d_stoich d))
                                  (f_role fl && negb (d_role d)) (f_isolated fl) (f_int fl) (f_eid fl) (f_mol fl)) H
  = drop_attrs (Drops false false false false (d_stoich d) (d_role d) false false) (hypergraph_to_bipartite fl H).
Proof. exact export_drop_arcs. Qed.
Print Assumptions C16_delete_arc_attrs_is_export_flag.

(** the default configuration: exported with "S:" / "R:" (string ids, coefficients) and imported with the default flags, the graph
    may lose every `kind`, `role`, `mol` and marker — and, when all rules are "r", the reaction labels too *)
Theorem C16_untagged_default_prefixes : ∀ (fl : bflags) (d : drops) (mol_attr : bool) (H : net),
  wf16 H → f_eid fl = true → f_stoich fl = true → f_int fl = false → f_sp fl = Some "S:" → f_rp fl = Some "R:" →
  d_stoich d = false → d_label_sp d = false →
  (d_label_rx d = true → map_Forall (λ _ rx, r_rule rx = "r") (edges H)) →
  (bipartite_to_hypergraph (default_iflags mol_attr) (drop_attrs d (hypergraph_to_bipartite fl H))).2 = None ∧
  edges (bipartite_to_hypergraph (default_iflags mol_attr) (drop_attrs d (hypergraph_to_bipartite fl H))).1 = edges H.
Proof. exact untagged_default_prefixes. Qed.
Print Assumptions C16_untagged_default_prefixes.

(** the same for the species graph ([sdrop_attrs], model/C16_Edit.v): ids and coefficients come back from `via` and the
    per-reaction maps alone — the node `label` (absent: the node id), `kind`, `mol`, the `rules` sets and the legacy per-arc
    values stoich_r / stoich_p may all be deleted.  (Deleting the per-reaction maps instead breaks the clause as soon as two
    reactions share a species pair with different coefficients: [ex_sdrop_maps_needed]; non-vacuity [ex_sdrop_nonvacuous].) *)
Theorem C16_species_graph_roundtrip_edited : ∀ (pick : gset string → string) (default_rule : string) (include_mol mol_attr : bool)
    (d : sdrops) (H : net),
  map_Forall (λ _ rx, r_lhs rx ≠ ∅ ∧ r_rhs rx ≠ ∅) (edges H) → sd_rmap d = false → sd_pmap d = false →
  (species_graph_to_hypergraph pick default_rule mol_attr (sdrop_attrs d (hypergraph_to_species_graph include_mol H))).2 = None ∧
  (λ rx, (r_lhs rx, r_rhs rx)) <$> edges (species_graph_to_hypergraph pick default_rule mol_attr
                                            (sdrop_attrs d (hypergraph_to_species_graph include_mol H))).1
    = (λ rx, (r_lhs rx, r_rhs rx)) <$> edges H.
Proof. exact species_graph_roundtrip_edited. Qed.
Print Assumptions C16_species_graph_roundtrip_edited.

(** the LEGACY format: graphs without the per-reaction maps (either or both deleted; the legacy per-arc value of a deleted
    map must then stay).  The importer falls back to stoich_r / stoich_p — the minimum over the reactions of the arc — and the
    round trip holds when that minimum loses nothing: reactions that share a (reactant, product) pair agree on both
    coefficients for it.  Necessary: [ex_sdrop_maps_needed] (2A >> B, 3A >> 4B); non-vacuity [ex_legacy_nonvacuous]
    (two reactions on the arc A -> B with equal coefficients, differing elsewhere; labels, rules and both maps deleted). *)
Theorem C16_species_graph_roundtrip_legacy : ∀ (pick : gset string → string) (default_rule : string) (include_mol mol_attr : bool)
    (d : sdrops) (H : net),
  map_Forall (λ _ rx, r_lhs rx ≠ ∅ ∧ r_rhs rx ≠ ∅) (edges H) →
  (∀ e e' rx rx' u v c d c' d', edges H !! e = Some rx → edges H !! e' = Some rx' →
     r_lhs rx !! u = Some c → r_rhs rx !! v = Some d → r_lhs rx' !! u = Some c' → r_rhs rx' !! v = Some d' → c = c' ∧ d = d') →
  (sd_rmap d = true → sd_leg_r d = false) → (sd_pmap d = true → sd_leg_p d = false) →
  (species_graph_to_hypergraph pick default_rule mol_attr (sdrop_attrs d (hypergraph_to_species_graph include_mol H))).2 = None ∧
  (λ rx, (r_lhs rx, r_rhs rx)) <$> edges (species_graph_to_hypergraph pick default_rule mol_attr
                                            (sdrop_attrs d (hypergraph_to_species_graph include_mol H))).1
    = (λ rx, (r_lhs rx, r_rhs rx)) <$> edges H.
Proof. exact species_graph_roundtrip_legacy. Qed.
Print Assumptions C16_species_graph_roundtrip_legacy.

(** ** conversion._as_bipartite on an UNDIRECTED bipartite graph (model/C16_Undirected.v): orientation by `role` *)
(** take the exported DiGraph (roles exported) and present it undirected in ANY way — the incidences in any sequence [l], each
    with its endpoints in either order ([flipb b]: networkx decides both) —: _as_bipartite rebuilds exactly the exported DiGraph,
    catalysts (two incidences between one pair of nodes) included, and the import returns the reactions.  Without `role` the
    product arcs are turned around ([ex_undirected_role_needed]); non-vacuity [ex_undirected_nonvacuous]. *)
Theorem C16_undirected_roundtrip : ∀ (fl : bflags) (ifl : iflags) (H : net) (bs : list bool) (l : list (nid * nid * barc)),
  wf16 H → f_eid fl = true → f_stoich fl = true → f_role fl = true → bip_names_ok fl H →
  length bs = length (map_to_list (b_arcs (hypergraph_to_bipartite fl H))) →
  l ≡ₚ zip_with (λ (b : bool) (e : nid * nid * barc), if b then (e.1.2, e.1.1, e.2) else e) bs
               (map_to_list (b_arcs (hypergraph_to_bipartite fl H))) →
  as_bipartite_undirected (UGraph (b_nodes (hypergraph_to_bipartite fl H)) l) = hypergraph_to_bipartite fl H ∧
  edges (bipartite_to_hypergraph ifl (as_bipartite_undirected (UGraph (b_nodes (hypergraph_to_bipartite fl H)) l))).1 = edges H.
Proof. exact undirected_roundtrip. Qed.
Print Assumptions C16_undirected_roundtrip.
