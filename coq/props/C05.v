From Coq Require Import List NArith ZArith Bool.
From SK Require Import lib.LGraph lib.Mono.
From SK Require model.C06_Model model.C11_Model.
From SK Require Import model.C03_Model model.C05_Model proof.C05_Proof proof.C05_Glue proof.C05_Pipe proof.C05_Prep proof.C05_Comp proof.C05_Order proof.C05_Sub proof.C05_Set proof.C05_Result proof.C05_AllStrat proof.C05_PrepOrder proof.C05_Default proof.C05_Rewrite proof.C05_Capstone proof.C05_Refuted proof.C05_Cap proof.C05_AnyCap proof.C05_Partial proof.C05_PartialOrder proof.C05_PartialCap proof.C05_Prefilter proof.C05_PrefilterOrder proof.C05_Enum.
From SK Require Import lib.C06_Spec proof.C06_Comp.
From SK Require proof.C11_Dedup.
From Coq Require Import Permutation.
Import ListNotations.

(** Conventions.  [relabel f g] renames the node ids of a list graph by [f] and keeps the insertion order of nodes and
    edges; [inj f] = f is injective; [mv sg pi m] = the match [pi o m o sg^-1] (pairs (p, h) |-> (sg p, pi h)).
    [pi] renumbers the substrate, [sg] renumbers the rule (the template's atom-map numbers ARE its node ids).
    Sections 1-5c are literal equalities of lists / list graphs (renumbering that keeps insertion order); sections 2', 3',
    6 and 7 are about graphs as FUNCTIONS and matches as SETS of pairs (any insertion order).  The vocabulary of the
    latter is written out in [C05_vocabulary].
    VF2 IS INSTANTIATED: [matches] and [rule_auts] call the verified enumerator of lib/Mono.v (node-list order) where the Python
    code calls networkx's VF2 (its own order, same matches by the oracle contract; counts, raw-match multisets and glued
    multisets are compared on every case).  Which representative the pruning keeps depends on that order; section 24 proves
    that the result set does not.
    THE EMBEDDING CAP.  Every definition of the model takes the effective cap of the search engine as a parameter
    ([TH : Thr], [thr_val]; SynReactor(embed_threshold = k) -> find_subgraph_mappings(threshold = k); the default 5000 is
    [thr_of None]), so every theorem below that starts with [forall (TH : Thr)] holds for EVERY cap, the default one and
    any non-default one, zero included.  What the cap itself does is section 14. *)
Theorem C05_vocabulary :
  forall (TH : Thr),
  (forall f, inj f <-> forall a b : N, f a = f b -> a = b) /\
  (forall sg pi (m : mapping), mv sg pi m = map (fun ph => (sg (fst ph), pi (snd ph))) m) /\
  (* the same graph written in another order: same node ids, labels, adjacency *)
  (forall (g g' : hostg), same_graph g g' <->
     (forall u, label g' u = label g u) /\ (forall u v, LGraph.adj g' u v = LGraph.adj g u v) /\
     (forall u, In u (node_ids g) <-> In u (node_ids g')) /\ NoDup (node_ids g) /\ NoDup (node_ids g')) /\
  (* observational equality of two ITS graphs: the same label function and the same adjacency function *)
  (forall (T T' : its), obs_eq T T' <->
     (forall n, label T' n = label T n) /\ (forall a b, LGraph.adj T' a b = LGraph.adj T a b)) /\
  (* what the boolean [side_okb] (evaluated by the correspondence on every writing) guarantees *)
  (forall host p, side_okb host p = true ->
     p_flag p = false /\ gwf (host_c06 host) /\ gwf (pat_c06 (p_pat p)) /\
     (C06_Model.lenN (C06_Model.monos_on (host_c06 host) (pat_c06 (p_pat p))
                        (node_ids (host_c06 host)) (node_ids (pat_c06 (p_pat p)))) <= thr_val)%N /\
     NoDup (node_ids (p_rc p)) /\ simple_edgesb (gedges (p_rc p)) = true /\
     (forall a b x, In (a, b, x) (gedges (p_rc p)) -> In a (node_ids (p_rc p)) /\ In b (node_ids (p_rc p))) /\
     (forall u, In u (node_ids (p_pat p)) -> In u (node_ids (p_rc p)))) /\
  (* [side_okb_c] (what the run function evaluates) = [side_okb] and the component-aware bound of the C06 specification *)
  (forall host p, side_okb_c host p = true ->
     side_okb host p = true /\
     (comp_bound (C06_Model.monos_on (host_c06 host) (pat_c06 (p_pat p))) true (host_c06 host) (pat_c06 (p_pat p)) <= thr_val)%N).
Proof. intros TH. exact vocabulary_c. Qed.
Print Assumptions C05_vocabulary.

(** 1. Gluing is equivariant: the relabelled rule glued onto the relabelled substrate along the transported match is the
    relabelled ITS (and fails exactly when the original fails). *)
Theorem C05_glue_equivariant :
  forall (sg pi : N -> N), inj sg -> inj pi ->
  forall (host : hostg) (rc : its) (m : mapping),
    glue (relabel pi host) (relabel sg rc) (mv sg pi m) = option_map (relabel pi) (glue host rc m).
Proof. exact glue_equivariant. Qed.
Print Assumptions C05_glue_equivariant.

(** 2. Matching is equivariant.  (a) the verified enumerator that stands for VF2 (any labels, induced or not): the match
    list of the relabelled problem is the transported match list, in the same order; (b) the raw matches of every strategy
    (ALL / COMPONENT / BACKTRACK: connected components, per-component enumeration, length sort, back-tracking combination)
    as SynReactor.mappings configures the engine; (c) the automorphisms of the rule used for pruning. *)
Theorem C05_matches_equivariant :
  forall (TH : Thr),
  (forall (A B : Type) (sg pi : N -> N), inj pi ->
   forall (hn : list N) (pl hl pl' hl' : N -> A) (pe he pe' he' : N -> N -> option B)
          (nm : A -> A -> bool) (em : B -> B -> bool) (induced : bool),
     (forall p, pl' (sg p) = pl p) -> (forall h, hl' (pi h) = hl h) ->
     (forall p q, pe' (sg p) (sg q) = pe p q) -> (forall h k, he' (pi h) (pi k) = he h k) ->
     forall pn, monos (map sg pn) (map pi hn) pl' hl' pe' he' nm em induced
                = map (mv sg pi) (monos pn hn pl hl pe he nm em induced)) /\
  (forall (strat : N) (sg pi : N -> N), inj sg -> inj pi ->
   forall (host : hostg) (pat : molg),
     matches strat (relabel pi host) (relabel sg pat) = map (mv sg pi) (matches strat host pat)) /\
  (forall (sg : N -> N), inj sg ->
   forall rc : its, rule_auts (relabel sg rc) = map (mv sg sg) (rule_auts rc)).
Proof.
  intros TH.
  split; [|split].
  - intros A B sg pi Hpi hn pl hl pl' hl' pe he pe' he' nm em induced H1 H2 H3 H4 pn.
    exact (monos_equiv A B sg pi Hpi hn pl hl pl' hl' pe he pe' he' nm em induced H1 H2 H3 H4 pn).
  - exact matches_relabel.
  - exact rule_auts_relabel.
Qed.
Print Assumptions C05_matches_equivariant.

(** 3. Strategies, dispatch.  The fallback strategy returns the component-aware result whenever that is non-empty: raw
    matches, kept matches and (pattern without explicit X-H bonds) glued graphs.  When the substrate has fewer
    components than the pattern the component-aware search is the exhaustive search.  On the explicit-hydrogen path the
    re-matching inside _glue_graph uses the strategy again, so the glued-graph clause is stated for patterns without
    explicit X-H bonds.  The inclusion comp <= all is 3' below. *)
Theorem C05_strategy_dispatch :
  forall (TH : Thr),
  (forall host pat, matches 1%N host pat <> [] -> matches 2%N host pat = matches 1%N host pat) /\
  (forall host p, raw_of 1%N host p <> [] -> kept_of 2%N host p = kept_of 1%N host p) /\
  (forall host p, p_flag p = false -> raw_of 1%N host p <> [] -> glued_of 2%N host p = glued_of 1%N host p) /\
  (forall host pat,
     (length (C06_Model.comps (pat_c06 pat)) <> 0)%nat ->
     (length (C06_Model.comps (host_c06 host)) < length (C06_Model.comps (pat_c06 pat)))%nat ->
     matches 1%N host pat = matches 0%N host pat).
Proof.
  intros TH.
  split; [exact matches_bt_comp|]. split; [exact kept_bt_comp|]. split; [exact glued_bt_comp | exact matches_comp_all_few].
Qed.
Print Assumptions C05_strategy_dispatch.

(** 4. Repetition.  NOT A COVERAGE CLAIM: the statement below is congruence — it holds for every Gallina function — and only
    records that the modelled pipeline has no hidden state BY CONSTRUCTION.  The clause "unchanged when the call is repeated"
    of the property is about the state the IMPLEMENTATION has: it is TESTED (oracle clauses `repeat` and `invariant-sequence`:
    second reads of every lazily computed attribute, several reactors on one template object, histories in both orders in a
    fresh interpreter), and the reactor's lazy caches are modelled as a state machine and proved coherent by C03
    (model/C03_Reactor.v, C03_reads_stable / C03_reads_after_crash), not here. *)
Theorem C05_repeat_trivial :
  forall (TH : Thr),
  forall inv imp ex s (h h' : hostg) (t t' : its),
    h = h' -> t = t' -> pipeline inv imp ex s h t = pipeline inv imp ex s h' t'.
Proof. intros TH. exact pipeline_repeat. Qed.
Print Assumptions C05_repeat_trivial.

(** 5a. The symmetry pruning is equivariant, returns a sub-list of the raw matches in their order, and loses no class:
    every raw match is a kept match, or has the same pairs as one, or is a kept match moved by one of the listed
    automorphisms of the rule. *)
Theorem C05_prune_sound :
  (forall (sg pi : N -> N), inj sg -> inj pi ->
   forall (rc : its) raw, prune (relabel sg rc) (map (mv sg pi) raw) = map (mv sg pi) (prune rc raw)) /\
  (forall rc raw, C11_Dedup.subseq (prune rc raw) raw) /\
  (forall rc raw m, In m raw ->
     exists k, In k (prune rc raw) /\
       (k = m \/ C11_Model.set_eqb m k = true \/
        exists s, In s (rule_auts rc) /\ C11_Model.set_eqb m (C11_Model.act s k) = true)).
Proof. split; [exact prune_relabel|]. split; [exact prune_subseq | exact prune_complete]. Qed.
Print Assumptions C05_prune_sound.

(** 5b. The result list is transported by renumbering.
    FULL CLAUSE (property text): for every strategy, hydrogen mode and direction, if host' is host renumbered by pi with
    any insertion order and tpl' is tpl renumbered by sg with any insertion order, then the results of (host', tpl') are,
    as a set up to isomorphism, the results of (host, tpl); composed with the RDKit contract (isomorphic ITS graphs
    serialise to equal standardised strings; rewritten SMILES parse to isomorphic graphs) this is the invariance of the
    set of distinct reactions.
    PROVED (this theorem): every strategy, prepared rule whose pattern has no explicit X-H bond, renumbering that keeps the
    insertion order — the kept matches, the glued graphs and the result list (without the _explicit_h stage) of the
    renumbered inputs are literally the renumbered ones, one for one and in the same order.  In particular nothing in
    the pipeline looks at the numbers (no tie-break by node id, no anchor by smallest id: the defect repaired by aa7fe3c).
    NOT IN THIS LITERAL FORM: (i) insertion-order changes — the kept representative of a class and the order of the lists
    change; the set-level statements are sections 7 and 8; (ii) the explicit-hydrogen path: new
    hydrogen ids and h_pairs ids are allocated in numeric order, so results are isomorphic, not literally renumbered;
    (iii) the RDKit half.  All three are exercised on every run: the correspondence compares the multiset of glued graphs
    of every writing and strategy with the implementation (whose VF2 order differs from the model's), the oracle
    compares reaction sets across writings. *)
Theorem C05_result_list_equivariant :
  forall (TH : Thr),
  forall (strat : N) (sg pi : N -> N), inj sg -> inj pi ->
  forall (host : hostg) (p : prepared), p_flag p = false ->
    kept_of strat (relabel pi host) (relabel_prep sg p) = map (mv sg pi) (kept_of strat host p) /\
    glued_of strat (relabel pi host) (relabel_prep sg p) = map (relabel pi) (glued_of strat host p) /\
    results_of false strat (relabel pi host) (relabel_prep sg p) = option_map (map (relabel pi)) (results_of false strat host p).
Proof.
  intros TH strat sg pi Hs Hp host p Hflag. split; [|split].
  - apply kept_relabel; assumption.
  - apply glued_relabel; assumption.
  - apply results_relabel; assumption.
Qed.
Print Assumptions C05_result_list_equivariant.

(** 5c. End to end from the template (implicit-hydrogen mode: SynReactor(..., implicit_temp=True, explicit_h=False), both
    directions, every strategy, prepared pattern without explicit X-H bonds): rule preparation commutes with the
    renumbering of the template, hence the result list of the renumbered (substrate, template) pair is the renumbered
    result list.  Same restrictions as 5b otherwise. *)
Theorem C05_pipeline_equivariant_implicit :
  forall (TH : Thr),
  forall (strat : N) (sg pi : N -> N), inj sg -> inj pi ->
  forall (inv : bool) (host : hostg) (tpl : its) (p : prepared),
    prepare inv true tpl = Some p -> p_flag p = false ->
    prepare inv true (relabel sg tpl) = Some (relabel_prep sg p) /\
    pipeline inv true false strat (relabel pi host) (relabel sg tpl)
    = option_map (map (relabel pi)) (pipeline inv true false strat host tpl).
Proof.
  intros TH strat sg pi Hs Hp inv host tpl p Hprep Hflag. split.
  - apply prepare_relabel; assumption.
  - eapply pipeline_relabel_any; eassumption.
Qed.
Print Assumptions C05_pipeline_equivariant_implicit.

(** 2'. Insertion order.  [same_graph g g'] : the same node ids, labels and adjacency, whatever the insertion order of
    nodes and bonds and the orientation of the stored bonds (what a SMILES rewriting changes besides the numbering).
    The SET of raw matches of the exhaustive strategy does not depend on it; with 2(b): under an arbitrary rewriting
    (renumbering pi, then any reordering) every raw match is transported to a raw match of the rewritten substrate.
    (Pattern-side reordering and the other strategies: not proved, see 5b.) *)
Theorem C05_matches_order_independent :
  forall (TH : Thr),
  (forall (host host' : hostg) (pat : molg), same_graph host host' ->
     forall m, In m (matches 0%N host pat) <-> In m (matches 0%N host' pat)) /\
  (forall (sg pi : N -> N), inj sg -> inj pi ->
   forall (host host' : hostg) (pat : molg), same_graph (relabel pi host) host' ->
     forall m, In m (matches 0%N host pat) -> In (mv sg pi m) (matches 0%N host' (relabel sg pat))).
Proof. intros TH. split; [exact matches_all_host_order | exact matches_all_rewriting]. Qed.
Print Assumptions C05_matches_order_independent.

(** 3'. The component-aware strategy returns a subset of the exhaustive strategy: every component-aware match is, as a
    set of pairs (Permutation: the order of the pairs of a match is not observable, Python dicts), an exhaustive match.
    Premises: the matcher's graphs are well formed ([gwf]: distinct node ids, bonds join two different listed atoms —
    part of [side_okb], evaluated on every case) and neither search runs into the embedding cap ([thr_val]: 5000 by
    default; [comp_bound] = the longest list the component-aware search builds; past the cap the engine empties a
    result).  Section 21 removes the premise about the component-aware search.  Derived from the specification theorems
    of proof/C06_*.v (C06_comp_spec, C06_all_exact) instantiated with the reactor's configuration. *)
Theorem C05_strategy_subset :
  forall (TH : Thr),
  forall (host : hostg) (pat : molg),
    gwf (host_c06 host) -> gwf (pat_c06 pat) ->
    (comp_bound (C06_Model.monos_on (host_c06 host) (pat_c06 pat)) true (host_c06 host) (pat_c06 pat) <= thr_val)%N ->
    (C06_Model.lenN (C06_Model.monos_on (host_c06 host) (pat_c06 pat) (node_ids (host_c06 host)) (node_ids (pat_c06 pat)))
       <= thr_val)%N ->
    forall m, In m (matches 1%N host pat) -> exists m', In m' (matches 0%N host pat) /\ Permutation m m'.
Proof. intros TH. exact comp_subset_all. Qed.
Print Assumptions C05_strategy_subset.

(** 6. The glue does not look at insertion orders, and matches of one pruning class glue to the same ITS.
    (a) two writings of substrate and rule (observationally equal graphs) and two writings of the match (same pairs):
    both glues fail, or both succeed with observationally equal ITS graphs; (b) a match moved by one of the listed
    automorphisms of the rule ([C11_Model.act s k] = the pairs (sigma[p], h)) glues to the same ITS as the match itself —
    this is why pruning by rule automorphisms loses no reaction (clause 4 of C11 at graph level). *)
Theorem C05_glue_order_independent :
  (forall (host host' : hostg) (rc rc' : its) (m m' : mapping),
     obs_eq host host' -> obs_eq rc rc' ->
     simple_edgesb (gedges rc) = true -> simple_edgesb (gedges rc') = true ->
     NoDup (map fst m) -> NoDup (map snd m) -> NoDup (map fst m') -> NoDup (map snd m') ->
     (forall ph, In ph m <-> In ph m') ->
     (forall p h, In (p, h) m -> (exists pn, label rc p = Some pn) /\ (exists hn, label host h = Some hn)) ->
     match glue host rc m, glue host' rc' m' with
     | Some T, Some T' => obs_eq T T'
     | None, None => True
     | _, _ => False
     end) /\
  (forall (rc : its) (s : mapping),
     NoDup (node_ids rc) -> simple_edgesb (gedges rc) = true ->
     (forall a b x, In (a, b, x) (gedges rc) -> In a (node_ids rc) /\ In b (node_ids rc)) ->
     In s (rule_auts rc) ->
     forall (host : hostg) (k : mapping),
       NoDup (map fst k) -> NoDup (map snd k) ->
       (forall p h, In (p, h) k -> (exists pn, label rc p = Some pn) /\ (exists hn, label host h = Some hn)) ->
       match glue host rc k, glue host rc (C11_Model.act s k) with
       | Some T, Some T' => obs_eq T T'
       | None, None => True
       | _, _ => False
       end).
Proof. split; [exact glue_obs | exact glue_aut]. Qed.
Print Assumptions C05_glue_order_independent.

(** 7. The result set of the exhaustive strategy is invariant under ARBITRARY rewriting of both inputs: renumbering by
    (sg, pi) followed by any re-ordering of nodes, bonds and bond orientations of substrate, rule graph and pattern.
    The glued ITS graphs of the rewritten inputs are, as a set of observationally equal graphs, exactly the renumbered
    glued ITS graphs of the original: nothing is gained, nothing is lost.  (Pattern without explicit X-H bonds; the
    premises [side_okb] are evaluated by the correspondence on every writing of every case.)
    With the RDKit contract (rewritten SMILES parse to the same graph up to numbering and order; isomorphic ITS graphs
    serialise to equal standardised strings) this is the property's first clause for the exhaustive strategy.
    Every strategy: section 8 (one more premise).  Not covered: the explicit-hydrogen path, the _explicit_h stage, rule
    preparation under re-ordering of the template (under renumbering: 5c). *)
Theorem C05_result_set_invariant_exhaustive :
  forall (TH : Thr),
  forall (sg pi : N -> N), inj sg -> inj pi ->
  forall (host host'' : hostg) (p p'' : prepared),
    side_okb (relabel pi host) (relabel_prep sg p) = true -> side_okb host'' p'' = true ->
    same_graph (relabel pi host) host'' -> same_graph (relabel sg (p_rc p)) (p_rc p'') ->
    same_graph (relabel sg (p_pat p)) (p_pat p'') ->
    (forall T, In T (glued_of 0%N host p) -> exists T'', In T'' (glued_of 0%N host'' p'') /\ obs_eq (relabel pi T) T'') /\
    (forall T'', In T'' (glued_of 0%N host'' p'') -> exists T, In T (glued_of 0%N host p) /\ obs_eq (relabel pi T) T'').
Proof.
  intros TH sg pi Hs Hp host host'' p p'' S S''.
  exact (glued_set_rewriting sg pi Hs Hp host host'' p p'' (side_okb_ok _ _ S) (side_okb_ok _ _ S'')).
Qed.
Print Assumptions C05_result_set_invariant_exhaustive.

(** 8. C05_result_set_invariant — the clause for EVERY strategy (0 exhaustive, 1 component-aware, 2 fallback), at graph
    level.  FULL CLAUSE (property text): the set of distinct reactions is unchanged when the substrate SMILES is
    rewritten and the template's map numbers are permuted, for all strategies, modes and directions.
    PROVED: for every strategy, every renumbering (sg, pi) and every re-ordering of atoms, bonds and bond orientations
    of substrate, rule graph and pattern, the glued ITS graphs of the rewritten inputs are, as a set of observationally
    equal graphs, exactly the renumbered glued ITS graphs of the original.  Premise per writing: the boolean [side_okb_c] = [side_okb] and
    the longest intermediate list of the component-aware search below the embedding cap (past it the engine
    empties results; exhaustive strategy without this premise: sections 14e, 20, 23); it is evaluated by the correspondence on every writing of every
    case ([run_c05]).
    MISSING for the full clause: (i) the RDKit half — rewritten SMILES parse to [same_graph]s up to numbering, and
    observationally equal ITS graphs serialise to equal standardised strings (oracle contract, monitored by the
    metamorphic oracle on every case); (ii) patterns that keep explicit X-H bonds (re-matching on the hydrogen-expanded
    substrate) and the _explicit_h stage of the default mode: fresh hydrogen ids are allocated in numeric order, the
    statement needs isomorphism instead of renumbering; (iii) rule preparation in the default mode
    (_strip_explicit_h assigns hydrogen-pair ids in numeric order); in implicit-hydrogen mode the statement from the
    TEMPLATE is section 9.  (ii) and (iii) are compared with the implementation on every run (multisets of glued graphs
    per writing and strategy). *)
Theorem C05_result_set_invariant_partial :
  forall (TH : Thr),
  forall (strat : N), strat = 0%N \/ strat = 1%N \/ strat = 2%N ->
  forall (sg pi : N -> N), inj sg -> inj pi ->
  forall (host host'' : hostg) (p p'' : prepared),
    side_okb_c (relabel pi host) (relabel_prep sg p) = true -> side_okb_c host'' p'' = true ->
    same_graph (relabel pi host) host'' -> same_graph (relabel sg (p_rc p)) (p_rc p'') ->
    same_graph (relabel sg (p_pat p)) (p_pat p'') ->
    (forall T, In T (glued_of strat host p) -> exists T'', In T'' (glued_of strat host'' p'') /\ obs_eq (relabel pi T) T'') /\
    (forall T'', In T'' (glued_of strat host'' p'') -> exists T, In T (glued_of strat host p) /\ obs_eq (relabel pi T) T'').
Proof.
  intros TH strat Hst sg pi Hs Hp host host'' p p'' S S''.
  exact (glued_set_rewriting_any strat sg pi Hs Hp host host'' p p'' Hst (side_okb_c_ok _ _ S) (side_okb_c_ok _ _ S'')).
Qed.
Print Assumptions C05_result_set_invariant_partial.

(** 9. From the template, implicit-hydrogen mode (SynReactor(..., implicit_temp=True, explicit_h=False)), both
    directions, every strategy: if the substrate is rewritten (renumbered by pi, any re-ordering) and the template ITS is
    rewritten (map numbers permuted by sg, any re-ordering of its node and edge lists), then the rewritten template is
    prepared into a rule again, both pipelines return their glued graphs, and the two result sets correspond one to one
    up to the renumbering (premises [side_okb_c], as in 8).  Rule preparation
    (its_decompose, typesGH refresh, _invert_template, the explicit X-H test) only depends on the template as a graph. *)
Theorem C05_pipeline_set_invariant_implicit :
  forall (TH : Thr),
  forall (strat : N), strat = 0%N \/ strat = 1%N \/ strat = 2%N ->
  forall (sg pi : N -> N) (inv : bool) (host host'' : hostg) (tpl tpl'' : its) (p : prepared),
    inj sg -> inj pi ->
    prepare inv true tpl = Some p -> p_flag p = false ->
    simple_edgesb (gedges tpl) = true -> simple_edgesb (gedges tpl'') = true ->
    same_graph (relabel pi host) host'' -> same_graph (relabel sg tpl) tpl'' ->
    exists p'', prepare inv true tpl'' = Some p'' /\ p_flag p'' = false /\
      pipeline inv true false strat host tpl = Some (glued_of strat host p) /\
      pipeline inv true false strat host'' tpl'' = Some (glued_of strat host'' p'') /\
      (side_okb_c (relabel pi host) (relabel_prep sg p) = true -> side_okb_c host'' p'' = true ->
       (forall T, In T (glued_of strat host p) -> exists T'', In T'' (glued_of strat host'' p'') /\ obs_eq (relabel pi T) T'') /\
       (forall T'', In T'' (glued_of strat host'' p'') -> exists T, In T (glued_of strat host p) /\ obs_eq (relabel pi T) T'')).
Proof.
  intros TH strat Hst sg pi inv host host'' tpl tpl'' p Hs Hp Hprep Hflag Hw Hw'' Hh Ht.
  destruct (pipeline_set_invariant strat sg pi inv host host'' tpl tpl'' p Hst Hs Hp Hprep Hflag Hw Hw'' Hh Ht)
    as (p'' & A & B & C & D & E).
  exists p''. split; [exact A|]. split; [exact B|]. split; [exact C|]. split; [exact D|].
  intros S S''. exact (E (side_okb_c_ok _ _ S) (side_okb_c_ok _ _ S'')).
Qed.
Print Assumptions C05_pipeline_set_invariant_implicit.

(** 3''. The same inclusion for RESULTS: every glued ITS graph of the component-aware strategy, and of the fallback
    strategy, is (up to [obs_eq]) a glued ITS graph of the exhaustive strategy on the same inputs — although the three
    strategies keep different representatives of the pruning classes.  Premise [side_okb_c], evaluated on every writing. *)
Theorem C05_strategy_subset_results :
  forall (TH : Thr),
  forall (host : hostg) (p : prepared), side_okb_c host p = true ->
    (forall T, In T (glued_of 1%N host p) -> exists T', In T' (glued_of 0%N host p) /\ obs_eq T T') /\
    (forall T, In T (glued_of 2%N host p) -> exists T', In T' (glued_of 0%N host p) /\ obs_eq T T').
Proof. intros TH host p S. exact (glued_subset_all_any_cap host p (proj1 (side_okb_c_ok _ _ S))). Qed.
Print Assumptions C05_strategy_subset_results.

(** 10. The DEFAULT configuration (SynReactor(substrate, template): explicit_h=True, implicit_temp=False), both directions,
    every strategy, for templates WITHOUT hydrogen atoms ([noHb]: no node has element H on either side): rule preparation
    (standardize_hydrogen, its_decompose, _strip_explicit_h, typesGH refresh) is then the pointwise function
    [prep_default] of the template (hydrogen counts reset, empty h_pairs), the pattern has no explicit X-H bond, and the
    _explicit_h stage leaves every glued graph as it is (no hydrogen pair, no migration) — so [pipeline] with the
    _explicit_h stage switched on is the list of glued graphs, and the set-level invariance of section 8 holds from the
    TEMPLATE to its_list: substrate and template renumbered and re-ordered, the two result sets correspond one to one.
    (Templates that write hydrogen changes with explicit H atoms: pair ids and fresh hydrogen ids are allocated in numeric
    order — compared with the implementation on every run, not covered here.) *)
Theorem C05_pipeline_set_invariant_default :
  forall (TH : Thr),
  forall (strat : N), strat = 0%N \/ strat = 1%N \/ strat = 2%N ->
  forall (sg pi : N -> N) (inv : bool) (host host'' : hostg) (tpl tpl'' : its),
    inj sg -> inj pi ->
    (* both writings of the template: distinct ids, simple edge list, no hydrogen atom on either side, no h_pairs *)
    nodupb (node_ids tpl) = true -> noHb tpl = true ->
    (forall k a, In (k, a) (gnodes tpl) -> i_hp a = None \/ i_hp a = Some []) -> simple_edgesb (gedges tpl) = true ->
    nodupb (node_ids tpl'') = true -> noHb tpl'' = true ->
    (forall k a, In (k, a) (gnodes tpl'') -> i_hp a = None \/ i_hp a = Some []) -> simple_edgesb (gedges tpl'') = true ->
    same_graph (relabel pi host) host'' -> same_graph (relabel sg tpl) tpl'' ->
    pipeline inv false true strat host tpl = Some (glued_of strat host (prep_default inv tpl)) /\
    pipeline inv false true strat host'' tpl'' = Some (glued_of strat host'' (prep_default inv tpl'')) /\
    (side_okb_c (relabel pi host) (relabel_prep sg (prep_default inv tpl)) = true -> side_okb_c host'' (prep_default inv tpl'') = true ->
     (forall T, In T (glued_of strat host (prep_default inv tpl)) ->
        exists T'', In T'' (glued_of strat host'' (prep_default inv tpl'')) /\ obs_eq (relabel pi T) T'') /\
     (forall T'', In T'' (glued_of strat host'' (prep_default inv tpl'')) ->
        exists T, In T (glued_of strat host (prep_default inv tpl)) /\ obs_eq (relabel pi T) T'')).
Proof.
  intros TH strat Hst sg pi inv host host'' tpl tpl'' Hs Hp A1 A2 A3 A4 B1 B2 B3 B4 Hh Ht.
  destruct (pipeline_default_set_invariant strat sg pi inv host host'' tpl tpl'' Hst Hs Hp A1 A2 A3 A4 B1 B2 B3 B4 Hh Ht) as (P1 & P2 & P3).
  split; [exact P1|]. split; [exact P2|]. intros S S''. exact (P3 (side_okb_c_ok _ _ S) (side_okb_c_ok _ _ S'')).
Qed.
Print Assumptions C05_pipeline_set_invariant_default.

(** 11. The premise "the second writing is the first one renumbered and re-ordered" of sections 8-10 is checked inside Coq
    on every case: the harness hands over, for every compared writing, the renumberings (pi, sg) it found with networkx
    between the graphs the IMPLEMENTATION parsed from the two writings, and the run function [run_c05w] evaluates
    [rewriting_okb].  This theorem says what a [true] means: both renumberings are injective functions on node ids and the
    writing is [same_graph] to the renumbered base — substrate and template.  (So for every compared writing of every case
    the hypotheses of 9 / 10 other than the well-formedness of the template are established by evaluation, and the RDKit
    contract "a rewritten SMILES parses to the same graph" is checked, not assumed, for that case.) *)
Theorem C05_rewriting_monitor :
  forall (host0 host : hostg) (tpl0 tpl : its) (pi sg : list (N * N)),
    rewriting_okb host0 tpl0 (host, tpl, pi, sg) = true ->
    inj (apply_map pi) /\ inj (apply_map sg) /\
    same_graph (relabel (apply_map pi) host0) host /\ same_graph (relabel (apply_map sg) tpl0) tpl /\
    simple_edgesb (gedges tpl0) = true /\ simple_edgesb (gedges tpl) = true.
Proof. exact rewriting_okb_ok. Qed.
Print Assumptions C05_rewriting_monitor.

(** 12. CAPSTONES — the statements of 8, 9 and 10 with every premise about the two writings in the form the run function
    evaluates on that very case: [side_okb_c] on the base writing AND on the other writing (the premise on the renumbered
    base of 8-10 follows: the premises are themselves invariant under renumbering), and [rewriting_okb] for "the other
    writing is the base renumbered and re-ordered" (11).  What remains assumed is outside the two writings: for 12b the
    base template is prepared with no explicit X-H bond (an observable of the case), for 12c both templates are
    hydrogen-free with distinct ids (evaluable booleans).
    12a: prepared rules, every strategy. *)
Theorem C05_result_set_invariant_checked :
  forall (TH : Thr),
  forall (strat : N), strat = 0%N \/ strat = 1%N \/ strat = 2%N ->
  forall (sg pi : N -> N), inj sg -> inj pi ->
  forall (host0 host : hostg) (p0 p : prepared),
    side_okb_c host0 p0 = true -> side_okb_c host p = true ->
    same_graph (relabel pi host0) host -> same_graph (relabel sg (p_rc p0)) (p_rc p) -> same_graph (relabel sg (p_pat p0)) (p_pat p) ->
    (forall T, In T (glued_of strat host0 p0) -> exists T', In T' (glued_of strat host p) /\ obs_eq (relabel pi T) T') /\
    (forall T', In T' (glued_of strat host p) -> exists T, In T (glued_of strat host0 p0) /\ obs_eq (relabel pi T) T').
Proof. intros TH strat Hst sg pi Hs Hp host0 host p0 p. exact (glued_set_checked strat sg pi Hs Hp host0 host p0 p Hst). Qed.
Print Assumptions C05_result_set_invariant_checked.

(** 12b: from the template, implicit-hydrogen mode. *)
Theorem C05_pipeline_checked_implicit :
  forall (TH : Thr),
  forall (strat : N), strat = 0%N \/ strat = 1%N \/ strat = 2%N ->
  forall (inv : bool) (host0 host : hostg) (tpl0 tpl : its) (pi sg : list (N * N)) (p0 : prepared),
    rewriting_okb host0 tpl0 (host, tpl, pi, sg) = true ->
    prepare inv true tpl0 = Some p0 -> p_flag p0 = false -> side_okb_c host0 p0 = true ->
    exists p, prepare inv true tpl = Some p /\ p_flag p = false /\
      pipeline inv true false strat host0 tpl0 = Some (glued_of strat host0 p0) /\
      pipeline inv true false strat host tpl = Some (glued_of strat host p) /\
      (side_okb_c host p = true ->
       (forall T, In T (glued_of strat host0 p0) -> exists T', In T' (glued_of strat host p) /\ obs_eq (relabel (apply_map pi) T) T') /\
       (forall T', In T' (glued_of strat host p) -> exists T, In T (glued_of strat host0 p0) /\ obs_eq (relabel (apply_map pi) T) T')).
Proof. intros TH strat Hst inv host0 host tpl0 tpl pi sg p0. exact (pipeline_checked_implicit strat inv host0 host tpl0 tpl pi sg p0 Hst). Qed.
Print Assumptions C05_pipeline_checked_implicit.

(** 12c: from the template, default configuration, hydrogen-free templates. *)
Theorem C05_pipeline_checked_default :
  forall (TH : Thr),
  forall (strat : N), strat = 0%N \/ strat = 1%N \/ strat = 2%N ->
  forall (inv : bool) (host0 host : hostg) (tpl0 tpl : its) (pi sg : list (N * N)),
    rewriting_okb host0 tpl0 (host, tpl, pi, sg) = true ->
    nodupb (node_ids tpl0) = true -> noHb tpl0 = true -> (forall k a, In (k, a) (gnodes tpl0) -> i_hp a = None \/ i_hp a = Some []) ->
    nodupb (node_ids tpl) = true -> noHb tpl = true -> (forall k a, In (k, a) (gnodes tpl) -> i_hp a = None \/ i_hp a = Some []) ->
    side_okb_c host0 (prep_default inv tpl0) = true -> side_okb_c host (prep_default inv tpl) = true ->
    pipeline inv false true strat host0 tpl0 = Some (glued_of strat host0 (prep_default inv tpl0)) /\
    pipeline inv false true strat host tpl = Some (glued_of strat host (prep_default inv tpl)) /\
    (forall T, In T (glued_of strat host0 (prep_default inv tpl0)) ->
       exists T', In T' (glued_of strat host (prep_default inv tpl)) /\ obs_eq (relabel (apply_map pi) T) T') /\
    (forall T', In T' (glued_of strat host (prep_default inv tpl)) ->
       exists T, In T (glued_of strat host0 (prep_default inv tpl0)) /\ obs_eq (relabel (apply_map pi) T) T').
Proof. intros TH strat Hst inv host0 host tpl0 tpl pi sg. exact (pipeline_checked_default strat inv host0 host tpl0 tpl pi sg Hst). Qed.
Print Assumptions C05_pipeline_checked_default.

(** 13. REFUTED on the explicit-hydrogen path (the code is kept as it is; known finding "explicit-path:bt-equals-comp"):
    "the fallback strategy returns the component-aware result whenever that is non-empty" (3 holds it for patterns without
    explicit X-H bonds).  When the pattern keeps explicit X-H bonds, _glue_graph re-matches the explicit pattern on the
    hydrogen-expanded substrate with the strategy again, so BACKTRACK re-decides its fallback per kept match.  Witness:
    Data/Testcase reaction 47 (centre template, forwards, implicit_temp=True): the component-aware search keeps 3 matches
    and glues 2 graphs, BACKTRACK glues 4. *)
Theorem C05_bt_equals_comp_explicit_path_refuted :
  exists (host : hostg) (p : prepared),
    p_flag p = true /\ @raw_of (thr_of None) 1%N host p <> [] /\
    length (@glued_of (thr_of None) 1%N host p) = 2%nat /\ length (@glued_of (thr_of None) 2%N host p) = 4%nat.
Proof. exact bt_explicit_path_refuted. Qed.
Print Assumptions C05_bt_equals_comp_explicit_path_refuted.

(** 14. The embedding cap.  (a) how the option is read: not given = 5000; [Some 0] is a real cap (not "no cap"); no strategy
    ever returns more embeddings than the cap, and cap 0 empties every search. *)
Theorem C05_embed_threshold_option :
  eff_thr None = 5000%N /\ (forall k, eff_thr (Some k) = k) /\ eff_thr (Some 0%N) = 0%N /\
  (forall o, @thr_val (thr_of o) = eff_thr o) /\
  (forall (TH : Thr) strat host pat, (C06_Model.lenN (matches strat host pat) <= thr_val)%N) /\
  (forall (TH : Thr) strat host pat, thr_val = 0%N -> matches strat host pat = []).
Proof.
  destruct eff_thr_spec as (A & B & C & D). repeat split; try assumption.
  - intros TH. apply matches_le_cap.
  - intros TH. apply cap_zero.
Qed.
Print Assumptions C05_embed_threshold_option.

(** (b) ALL OR NOTHING: under any cap a search answers with its complete, limit-free result or with nothing — never with
    "the first k embeddings in enumeration order", which would depend on how the inputs are written.  [enum_all] = every
    embedding of the pattern (the verified enumerator), [comp_unl] = the limit-free component-aware result of the C06
    specification.  An exhaustive search over the cap produces no match, no glued graph, and [its_list] = []. *)
Theorem C05_cap_all_or_nothing :
  forall (TH : Thr),
  (forall host pat,
     matches 0%N host pat = if (thr_val <? C06_Model.lenN (enum_all host pat))%N then [] else enum_all host pat) /\
  (forall host pat,
     matches 1%N host pat = [] \/
     matches 1%N host pat = C06_Comp.comp_unl (C06_Model.monos_on (host_c06 host) (pat_c06 pat)) true (host_c06 host) (pat_c06 pat)) /\
  (forall host pat,
     matches 2%N host pat = [] \/
     matches 2%N host pat = C06_Comp.comp_unl (C06_Model.monos_on (host_c06 host) (pat_c06 pat)) true (host_c06 host) (pat_c06 pat) \/
     matches 2%N host pat = enum_all host pat) /\
  (forall host p, (thr_val < C06_Model.lenN (enum_all host (p_pat p)))%N ->
     raw_of 0%N host p = [] /\ kept_of 0%N host p = [] /\ glued_of 0%N host p = [] /\
     forall ex, results_of ex 0%N host p = Some []).
Proof.
  intros TH. split; [apply all_or_nothing_all|]. split; [apply all_or_nothing_comp|]. split; [apply all_or_nothing_bt|].
  apply capped_results.
Qed.
Print Assumptions C05_cap_all_or_nothing.

(** (c) WHICH of the two it is does not depend on the writing: the number of embeddings is the same for every insertion
    order of the substrate, for every renumbering of substrate and pattern, and for ANY rewriting of both (renumbering
    followed by re-ordering of node lists, bond lists and bond orientation of substrate AND pattern; premise: the four
    matcher graphs are well formed, part of [side_okb]) — so a search that is over the cap for one writing is over the
    cap, and empty, for every other writing.  (The bound of the component-aware search: invariant under renumbering,
    [side_okb_c_relabel]; under re-ordering it is evaluated on every writing by the correspondence, not proved.) *)
Theorem C05_cap_decision_invariant :
  (forall (host host' : hostg) (pat : molg), same_graph host host' ->
     C06_Model.lenN (enum_all host' pat) = C06_Model.lenN (enum_all host pat)) /\
  (forall (sg pi : N -> N), inj sg -> inj pi ->
   forall (host host' : hostg) (pat : molg), same_graph (relabel pi host) host' ->
     C06_Model.lenN (enum_all host' (relabel sg pat)) = C06_Model.lenN (enum_all host pat)) /\
  (forall (sg pi : N -> N), inj sg -> inj pi ->
   forall (host host'' : hostg) (pat pat'' : molg),
     same_graph (relabel pi host) host'' -> same_graph (relabel sg pat) pat'' ->
     gwf (host_c06 (relabel pi host)) -> gwf (pat_c06 (relabel sg pat)) -> gwf (host_c06 host'') -> gwf (pat_c06 pat'') ->
     C06_Model.lenN (enum_all host'' pat'') = C06_Model.lenN (enum_all host pat)) /\
  (forall (TH : Thr) (sg pi : N -> N), inj sg -> inj pi ->
   forall (host host'' : hostg) (pat pat'' : molg),
     same_graph (relabel pi host) host'' -> same_graph (relabel sg pat) pat'' ->
     gwf (host_c06 (relabel pi host)) -> gwf (pat_c06 (relabel sg pat)) -> gwf (host_c06 host'') -> gwf (pat_c06 pat'') ->
     (thr_val < C06_Model.lenN (enum_all host pat))%N ->
     matches 0%N host pat = [] /\ matches 0%N host'' pat'' = []).
Proof.
  split; [intros host host' pat HS; symmetry; apply enum_all_count_host_order; exact HS|].
  split; [intros sg pi Hs Hp host host' pat HS; apply (capped_invariant sg pi); assumption|].
  split; [intros sg pi Hs Hp host host' pat pat' HS PS G1 G2 G3 G4; apply (capped_invariant_any sg pi); assumption|].
  intros TH sg pi Hs Hp host host' pat pat' HS PS G1 G2 G3 G4 Hlt. rewrite !all_or_nothing_all.
  rewrite (capped_invariant_any sg pi Hs Hp host host' pat pat' HS PS G1 G2 G3 G4). apply N.ltb_lt in Hlt. rewrite Hlt. split; reflexivity.
Qed.
Print Assumptions C05_cap_decision_invariant.

(** (d) REFUTED under a non-default cap (the code is kept as it is; known finding "capped:comp-subset"): "the
    component-aware strategy returns a subset of the exhaustive strategy" — 3' has the premise "both searches below the
    cap".  Halogen exchange on ClCCBr.ClCCBr: 4 embeddings / 4 glued graphs for the exhaustive search, 2 for the
    component-aware one; with embed_threshold = 3 the documented guard empties the exhaustive result only (and BACKTRACK
    returns the component-aware result). *)
Theorem C05_comp_subset_capped_refuted :
  exists (host : hostg) (p : prepared),
    length (@glued_of (thr_of None) 0%N host p) = 4%nat /\ length (@glued_of (thr_of None) 1%N host p) = 2%nat /\
    p_flag p = false /\ @glued_of (thr_of (Some 3%N)) 0%N host p = [] /\
    length (@glued_of (thr_of (Some 3%N)) 1%N host p) = 2%nat /\
    @glued_of (thr_of (Some 3%N)) 2%N host p = @glued_of (thr_of (Some 3%N)) 1%N host p.
Proof. exact comp_subset_capped_refuted. Qed.
Print Assumptions C05_comp_subset_capped_refuted.

(** (e) The clause of section 7 for EVERY cap, with no premise about the cap: exhaustive strategy, any rewriting of both
    inputs (renumbering by (sg, pi), then any re-ordering of nodes, bonds and bond orientations of substrate, rule graph
    and pattern) — the glued ITS graphs of the two writings correspond one to one up to [obs_eq].  By (b) and (c) both
    searches are over the cap (two empty lists) or both are below it (section 7).  The premise [side_okb0] is [side_okb]
    without "the number of embeddings is at most the cap" (first two clauses: what it guarantees; it follows from the
    monitored [side_okb]); the run function [run_c05t] evaluates it on every compared writing of every case. *)
Theorem C05_result_set_invariant_exhaustive_any_cap :
  (forall host p, side_okb0 host p = true ->
     p_flag p = false /\ gwf (host_c06 host) /\ gwf (pat_c06 (p_pat p)) /\
     NoDup (node_ids (p_rc p)) /\ simple_edgesb (gedges (p_rc p)) = true /\
     (forall a b x, In (a, b, x) (gedges (p_rc p)) -> In a (node_ids (p_rc p)) /\ In b (node_ids (p_rc p))) /\
     (forall u, In u (node_ids (p_pat p)) -> In u (node_ids (p_rc p)))) /\
  (forall (TH : Thr) host p, side_okb host p = true -> side_okb0 host p = true) /\
  (forall (TH : Thr) (sg pi : N -> N), inj sg -> inj pi ->
   forall (host host'' : hostg) (p p'' : prepared),
     side_okb0 (relabel pi host) (relabel_prep sg p) = true -> side_okb0 host'' p'' = true ->
     same_graph (relabel pi host) host'' -> same_graph (relabel sg (p_rc p)) (p_rc p'') ->
     same_graph (relabel sg (p_pat p)) (p_pat p'') ->
     (forall T, In T (glued_of 0%N host p) -> exists T'', In T'' (glued_of 0%N host'' p'') /\ obs_eq (relabel pi T) T'') /\
     (forall T'', In T'' (glued_of 0%N host'' p'') -> exists T, In T (glued_of 0%N host p) /\ obs_eq (relabel pi T) T'')).
Proof.
  split.
  { intros host p H. destruct (side_okb0_ok host p H) as [A B C E F G I].
    split; [exact A|]. split; [exact B|]. split; [exact C|]. split; [exact E|]. split; [exact F|]. split; [exact G | exact I]. }
  split; [intros TH host p; apply side_okb_okb0|].
  intros TH sg pi Hs Hp host host'' p p'' S S'' Hh Hr Hpt.
  apply (glued_set_rewriting_any_cap sg pi Hs Hp host host'' p p''); try assumption; apply side_okb0_ok; assumption.
Qed.
Print Assumptions C05_result_set_invariant_exhaustive_any_cap.

(** 15. SynReactor(partial=True): the raw matches of the PartialMatcher engine as the reactor configures it
    ([partial_matches]: connected components of the pattern — [None] = the ValueError for a pattern without components —,
    per-component search with strict_cc_count = False, combinations of k = n, n-1, ..., 1 components in itertools order,
    back-tracking over embeddings that are disjoint in the host, merged mappings) and the matches kept by the symmetry
    pruning are literally the renumbered ones when substrate and rule are renumbered — every strategy, every cap.
    (Gluing a PARTIAL match completes the rule with wildcard atoms: not modelled; the result sets of this option are
    compared across writings by the metamorphic oracle only.  Re-ordering of the inputs: not proved for this engine.) *)
Theorem C05_partial_equivariant :
  forall (TH : Thr) (strat : N) (sg pi : N -> N), inj sg -> inj pi ->
  (forall (host : hostg) (pat : molg),
     partial_matches strat (relabel pi host) (relabel sg pat) = option_map (map (mv sg pi)) (partial_matches strat host pat)) /\
  (forall (host : hostg) (p : prepared),
     partial_matches strat (relabel pi host) (p_pat (relabel_prep sg p))
     = option_map (map (mv sg pi)) (partial_matches strat host (p_pat p)) /\
     forall raw, partial_matches strat host (p_pat p) = Some raw ->
       prune (p_rc (relabel_prep sg p)) (map (mv sg pi) raw) = map (mv sg pi) (prune (p_rc p) raw)).
Proof.
  intros TH strat sg pi Hs Hp. split.
  - intros host pat. apply partial_matches_relabel; assumption.
  - intros host p. apply partial_kept_relabel; assumption.
Qed.
Print Assumptions C05_partial_equivariant.

(** 16. REFUTED for the option combination SynReactor(partial=True, embed_threshold=k) (the code is kept as it is; known
    finding "partial-capped:invariant-rewriting"): in partial mode the reactor ALSO turns the cap into a result limit
    max_results = k / 100 ([pmax_of]: the engines test `len(results) >= max_results`, so the effective limit is ceil(k/100)),
    and a result limit keeps the first matches in enumeration order — which ones these are depends on the order in which
    the substrate's atoms are stored.  Witness: thiol dimerisation (centre = the two sulfur atoms) on CCS.CS with
    embed_threshold = 100 (limit 1): stored in the order 1..5 the single match is S2 -> atom 3 (the thiol of CCS), stored
    in reverse order it is S2 -> atom 5 (the thiol of CS); without the option both orders give the same 6 matches.
    (The model enumerates in node-list order, VF2 in its own: the implementation shows the same dependence on the atom
    order of the SMILES — corpus/regress/C05/partial_capped.json.) *)
Theorem C05_partial_capped_order_dependent_refuted :
  exists (host host' : hostg) (pat : molg),
    same_graph host host' /\ gnodes host' <> gnodes host /\
    pmax_of (Some 100%N) = 1%N /\
    @partial_matches (thr_of (Some 100%N)) 0%N host pat = Some [[(2%N, 3%N)]] /\
    @partial_matches (thr_of (Some 100%N)) 0%N host' pat = Some [[(2%N, 5%N)]] /\
    (exists r r', @partial_matches (thr_of None) 0%N host pat = Some r /\ @partial_matches (thr_of None) 0%N host' pat = Some r' /\
                  length r = 6%nat /\ Permutation r r').
Proof. exact partial_capped_order_refuted. Qed.
Print Assumptions C05_partial_capped_order_dependent_refuted.

(** 17. SynReactor(partial=True), exhaustive strategy, no result limit ([pmax_val = 0]: embed_threshold not given), every cap:
    the SET of raw partial matches does not depend on the insertion order of the substrate's atoms and bonds nor on the
    orientation of the stored bonds (both raise the ValueError, or both return the same set).  Per pattern component the
    exhaustive search lists the same embeddings — or nothing, past the cap, for both writings —, and the combination /
    back-tracking stage depends on these lists only as sets.  With 15 (renumbering): any rewriting of the substrate SMILES.
    (Strategies comp / bt inside the engine, re-ordering of the pattern: compared on every run, not proved.) *)
Theorem C05_partial_matches_order_independent :
  forall (TH : Thr) (host host' : hostg) (pat : molg),
    pmax_val = 0%N -> same_graph host host' ->
    match partial_matches 0%N host pat, partial_matches 0%N host' pat with
    | Some r, Some r' => forall m, In m r <-> In m r'
    | None, None => True
    | _, _ => False
    end.
Proof. intros TH host host' pat. apply partial_matches_host_order. Qed.
Print Assumptions C05_partial_matches_order_independent.

(** 18. SynReactor(embed_pre_filter = True): the first search runs with the cheap pre-filter of find_subgraph_mappings (the
    re-match on the explicit-hydrogen path never does).  [matches_pf pref] / [glued_of_pf pref] are the raw matches and
    glued graphs under the option ([pref = false]: the definitions of the other sections).  The guard can only EMPTY the
    result; its decision (C06's [quick_pre_filter]: some pattern atom without candidate, or the product of the per-atom
    candidate counts above cap * 10000) commutes with every injective renumbering of substrate and pattern, and so do
    the raw matches and the glued graphs under the option — every strategy, every cap.  Re-ordering: section 19. *)
Theorem C05_prefilter_guard :
  forall (TH : Thr),
  (forall strat host pat, matches_pf false strat host pat = matches strat host pat) /\
  (forall strat host pat,
     matches_pf true strat host pat
     = if C06_Model.quick_pre_filter (host_c06 host) (pat_c06 pat) thr_val then [] else matches strat host pat) /\
  (forall strat host p,
     glued_of_pf true strat host p = if prefilter_fires host p then [] else glued_of strat host p) /\
  (forall (sg pi : N -> N), inj sg -> inj pi ->
   forall (H P : C06_Model.graph) thr,
     C06_Model.quick_pre_filter (relabel pi H) (relabel sg P) thr = C06_Model.quick_pre_filter H P thr) /\
  (forall (pref : bool) (strat : N) (sg pi : N -> N), inj sg -> inj pi ->
   forall (host : hostg) (pat : molg),
     matches_pf pref strat (relabel pi host) (relabel sg pat) = map (mv sg pi) (matches_pf pref strat host pat)) /\
  (forall (pref : bool) (strat : N) (sg pi : N -> N), inj sg -> inj pi ->
   forall (host : hostg) (p : prepared), p_flag p = false ->
     glued_of_pf pref strat (relabel pi host) (relabel_prep sg p) = map (relabel pi) (glued_of_pf pref strat host p)).
Proof.
  intros TH. split; [reflexivity|]. split; [apply matches_pf_true|]. split; [apply glued_of_pf_true|].
  split; [intros sg pi Hs Hp H P thr; apply quick_pre_filter_relabel; assumption|].
  split; [intros pref strat sg pi Hs Hp host pat; apply matches_pf_relabel; assumption|].
  intros pref strat sg pi Hs Hp host p Hf. apply glued_of_pf_relabel; assumption.
Qed.
Print Assumptions C05_prefilter_guard.

(** 19. The decision of the pre-filter does not depend on how substrate and pattern are WRITTEN (any insertion order of atoms
    and bonds, any orientation of the stored bonds): the loop multiplies the per-atom candidate counts in the order of
    the pattern's atoms and leaves early, yet its outcome is a function of the multiset of counts ("some count is zero,
    or the whole product exceeds cap * 10000"), each count is a number of substrate atoms with a property of labels and
    degrees, and the degree of an atom is the number of its neighbours whatever the order of a simple bond list
    (premise [wfb]: distinct atoms, simple bond list — C06_input_premise_monitor).  So when the guard fires for one
    writing it fires, and empties the result, for every other writing — every strategy, every cap. *)
Theorem C05_prefilter_decision_invariant :
  forall (TH : Thr) (host host' : hostg) (p p' : prepared),
    same_graph host host' -> same_graph (p_pat p) (p_pat p') ->
    C06_Model.wfb (host_c06 host) = true -> C06_Model.wfb (host_c06 host') = true ->
    C06_Model.wfb (pat_c06 (p_pat p)) = true -> C06_Model.wfb (pat_c06 (p_pat p')) = true ->
    prefilter_fires host' p' = prefilter_fires host p /\
    (forall strat, p_flag p = false -> p_flag p' = false ->
       prefilter_fires host p = true -> glued_of_pf true strat host p = [] /\ glued_of_pf true strat host' p' = []).
Proof.
  intros TH host host' p p' Hh Hp W1 W2 W3 W4.
  assert (E : prefilter_fires host' p' = prefilter_fires host p).
  { apply prefilter_fires_any_order; try assumption; apply C06_Main.wfb_spec; assumption. }
  split; [exact E|]. intros strat _ _ Hf. rewrite !glued_of_pf_true, E, Hf. split; reflexivity.
Qed.
Print Assumptions C05_prefilter_decision_invariant.

(** 20. The first clause of the property for the exhaustive strategy at graph level, for EVERY configuration of the two guards:
    any embedding cap ([TH]) and the pre-filter on or off ([pref]) — substrate and rule renumbered by (sg, pi) and re-ordered
    in any way (nodes, bonds, bond orientations of substrate, rule graph and pattern): the glued ITS graphs of the two writings
    correspond one to one up to [obs_eq].  No premise about the cap or the guard: by 14 and 19 both writings are stopped by the
    same guard (two empty lists) or by none (section 7).  Premises: [side_okb0] (14e) and [wfb] (19), evaluated per writing. *)
Theorem C05_result_set_invariant_exhaustive_any_options :
  forall (TH : Thr) (pref : bool) (sg pi : N -> N), inj sg -> inj pi ->
  forall (host host'' : hostg) (p p'' : prepared),
    side_okb0 (relabel pi host) (relabel_prep sg p) = true -> side_okb0 host'' p'' = true ->
    C06_Model.wfb (host_c06 (relabel pi host)) = true -> C06_Model.wfb (host_c06 host'') = true ->
    C06_Model.wfb (pat_c06 (p_pat (relabel_prep sg p))) = true -> C06_Model.wfb (pat_c06 (p_pat p'')) = true ->
    same_graph (relabel pi host) host'' -> same_graph (relabel sg (p_rc p)) (p_rc p'') ->
    same_graph (relabel sg (p_pat p)) (p_pat p'') ->
    (forall T, In T (glued_of_pf pref 0%N host p) -> exists T'', In T'' (glued_of_pf pref 0%N host'' p'') /\ obs_eq (relabel pi T) T'') /\
    (forall T'', In T'' (glued_of_pf pref 0%N host'' p'') -> exists T, In T (glued_of_pf pref 0%N host p) /\ obs_eq (relabel pi T) T'').
Proof.
  intros TH pref sg pi Hs Hp host host'' p p'' S S'' W1 W2 W3 W4 Hh Hr Hpt.
  apply (glued_set_rewriting_any_cap_pf pref sg pi Hs Hp host host'' p p''); try assumption;
    try (apply side_okb0_ok; assumption); apply C06_Main.wfb_spec; assumption.
Qed.
Print Assumptions C05_result_set_invariant_exhaustive_any_options.

(** 21. 3' under every cap, with the weakest possible premise: the component-aware strategy AND the fallback strategy return
    subsets of the exhaustive strategy whenever the EXHAUSTIVE search is not over the cap — nothing is asked of the
    component-aware search (under a cap it returns its limit-free result or nothing, 14b).  14d shows that the premise
    cannot be dropped: it is exactly the known finding "capped:comp-subset". *)
Theorem C05_strategy_subset_any_cap :
  forall (TH : Thr) (host : hostg) (pat : molg),
    gwf (host_c06 host) -> gwf (pat_c06 pat) ->
    (C06_Model.lenN (enum_all host pat) <= thr_val)%N ->
    (forall m, In m (matches 1%N host pat) -> exists m', In m' (matches 0%N host pat) /\ Permutation m m') /\
    (forall m, In m (matches 2%N host pat) -> exists m', In m' (matches 0%N host pat) /\ Permutation m m').
Proof.
  intros TH host pat Hw Pw Hl. split; [apply comp_subset_all_any_cap | apply bt_subset_all_any_cap]; assumption.
Qed.
Print Assumptions C05_strategy_subset_any_cap.

(** 22. 3'' with the weaker premise: every glued ITS graph of the component-aware and of the fallback strategy is, up to
    [obs_eq], a glued ITS graph of the exhaustive strategy whenever the EXHAUSTIVE search is not capped ([side_okb] instead
    of [side_okb_c]: nothing is asked of the component-aware search).  Proved by changing the cap — every theorem holds
    for every cap: under the larger cap max(cap, bound of the component-aware search) 3'' applies, the exhaustive result
    is the same under both caps, and the component-aware / fallback result under the smaller cap is empty or a result
    under the larger one (14b). *)
Theorem C05_strategy_subset_results_any_cap :
  forall (TH : Thr) (host : hostg) (p : prepared), side_okb host p = true ->
    (forall T, In T (glued_of 1%N host p) -> exists T', In T' (glued_of 0%N host p) /\ obs_eq T T') /\
    (forall T, In T (glued_of 2%N host p) -> exists T', In T' (glued_of 0%N host p) /\ obs_eq T T').
Proof. intros TH host p H. apply glued_subset_all_any_cap. apply side_okb_ok. exact H. Qed.
Print Assumptions C05_strategy_subset_results_any_cap.

(** 23. CAPSTONE of 20: the same statement with every premise about the two writings in the form the run function [run_c05t]
    evaluates on each compared writing of each case ([okb0_of] = [side_okb0] and [wfb] of the two matcher graphs, on the base
    writing and on the other writing — the premises are invariant under renumbering, [side_ok0_relabel], [wf_relabel]). *)
Theorem C05_result_set_invariant_exhaustive_any_options_checked :
  forall (TH : Thr) (pref : bool) (sg pi : N -> N), inj sg -> inj pi ->
  forall (host0 host : hostg) (p0 p : prepared),
    side_okb0 host0 p0 = true -> side_okb0 host p = true ->
    C06_Model.wfb (host_c06 host0) = true -> C06_Model.wfb (host_c06 host) = true ->
    C06_Model.wfb (pat_c06 (p_pat p0)) = true -> C06_Model.wfb (pat_c06 (p_pat p)) = true ->
    same_graph (relabel pi host0) host -> same_graph (relabel sg (p_rc p0)) (p_rc p) -> same_graph (relabel sg (p_pat p0)) (p_pat p) ->
    (forall T, In T (glued_of_pf pref 0%N host0 p0) -> exists T', In T' (glued_of_pf pref 0%N host p) /\ obs_eq (relabel pi T) T') /\
    (forall T', In T' (glued_of_pf pref 0%N host p) -> exists T, In T (glued_of_pf pref 0%N host0 p0) /\ obs_eq (relabel pi T) T').
Proof. intros TH pref sg pi Hs Hp host0 host p0 p. apply glued_set_any_options_checked; assumption. Qed.
Print Assumptions C05_result_set_invariant_exhaustive_any_options_checked.

(** 24. The result set does not depend on the ENUMERATION ORDER of the matcher (the model's enumerator lists matches in node-list
    order, VF2 in its own, and writes each match as a dict with its own item order; the pruning keeps the FIRST match of
    every class).  For any two listings of the same matches — any order of the list, any order of the pairs inside a match,
    repetitions allowed — the graphs glued from the KEPT matches correspond one to one up to [obs_eq] (first two clauses:
    [glue1], the general statement).  Third clause: the pipeline's glued graphs are exactly these (pattern without explicit
    X-H bonds).  Fourth: for a writing that satisfies [side_okb], any other listing of its exhaustive raw matches — VF2's —
    gives the same result set, both inclusions.  (Scope: the fourth clause is about the exhaustive strategy; for the
    component-aware / fallback strategies the raw list is assembled from several enumerations — per-component lists, length
    sort, back-tracking — so the general clauses apply: independence of the kept set GIVEN the raw list.) *)
Theorem C05_result_set_independent_of_enumeration :
  (forall host rc m, glue1 host rc m = match glue host rc m with Some T => [T] | None => [] end) /\
  (forall (host : hostg) (rc : its) (raw raw' : list mapping),
     NoDup (node_ids rc) -> simple_edgesb (gedges rc) = true ->
     (forall a b x, In (a, b, x) (gedges rc) -> In a (node_ids rc) /\ In b (node_ids rc)) ->
     (forall m, In m raw -> NoDup (map fst m) /\ NoDup (map snd m) /\
        forall q h, In (q, h) m -> (exists pn, label rc q = Some pn) /\ (exists hn, label host h = Some hn)) ->
     (forall m, In m raw' -> NoDup (map fst m) /\ NoDup (map snd m) /\
        forall q h, In (q, h) m -> (exists pn, label rc q = Some pn) /\ (exists hn, label host h = Some hn)) ->
     (forall m, In m raw -> exists m', In m' raw' /\ forall ph, In ph m <-> In ph m') ->
     (forall m', In m' raw' -> exists m, In m raw /\ forall ph, In ph m' <-> In ph m) ->
     forall T, In T (flat_map (glue1 host rc) (prune rc raw)) ->
       exists T', In T' (flat_map (glue1 host rc) (prune rc raw')) /\ obs_eq T T') /\
  (forall (TH : Thr) strat host p, p_flag p = false ->
     glued_of strat host p = flat_map (glue1 host (p_rc p)) (prune (p_rc p) (raw_of strat host p))) /\
  (forall (TH : Thr) (host : hostg) (p : prepared) (raw' : list mapping),
     side_okb host p = true ->
     (forall m, In m (raw_of 0%N host p) -> exists m', In m' raw' /\ forall ph, In ph m <-> In ph m') ->
     (forall m', In m' raw' -> exists m, In m (raw_of 0%N host p) /\ forall ph, In ph m' <-> In ph m) ->
     (forall m, In m raw' -> NoDup (map fst m) /\ NoDup (map snd m)) ->
     (forall T, In T (glued_of 0%N host p) ->
        exists T', In T' (flat_map (glue1 host (p_rc p)) (prune (p_rc p) raw')) /\ obs_eq T T') /\
     (forall T', In T' (flat_map (glue1 host (p_rc p)) (prune (p_rc p) raw')) ->
        exists T, In T (glued_of 0%N host p) /\ obs_eq T' T)).
Proof.
  split; [reflexivity|]. split.
  - intros host rc raw raw' Rn Rs Rc Hok Hok' L1 L2.
    apply (glued_independent_of_enumeration host rc raw raw'); try assumption.
    + split; [exact Rn|split; [exact Rs|exact Rc]].
    + split; assumption.
  - split; [intros TH strat host p; apply glued_of_glue1|].
    intros TH host p raw' S L1 L2 Hnd. apply glued_any_listing; try assumption.
    + apply side_okb_ok. exact S.
    + split; assumption.
Qed.
Print Assumptions C05_result_set_independent_of_enumeration.
