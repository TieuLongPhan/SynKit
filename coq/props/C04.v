(** C04 — applying a reaction's own template regenerates it, forwards and backwards.
    Statements only; every proof is [exact <term built from the lemmas of proof/C04_*.v>].

    Vocabulary (model/C04_Model.v; rule application from model/C03_Model.v): a reaction is the pair (G, H) of its parsed
    reactant and product graphs (node ids = atom maps).  [its_construct G H] = rsmi_to_its, [get_rc] = the centre,
    [template core invert G H] = the template handed to the reactor (centre | full ITS, inverted when applied backwards),
    [mode_E G H] = the hydrogen mode the reaction calls for (explicit centre hydrogens -> default mode),
    [rule_of] = the SynRule the reactor builds, [pattern_of l] = the pattern given to the matcher,
    [substrate invert G H] = the own reactants (products, backwards) with implicit hydrogens,
    [id_map ns] = the identity mapping, [match_okb] / [match_rcb] = what the matcher's node/edge predicates demand of a
    mapping (on the pattern / on the rule), [regenerate] = _glue_graph along the identity (+ _explicit_h in mode E),
    [regen_exact T A B] = the decomposition of T is (A, B): same atoms with the same element, hydrogen count and charge
    and the same bonds with the same orders (the aromatic flag and 'neighbors' are not compared: the gluing copies them
    from the substrate and RDKit re-perceives them), [centre_carries T] = no atom outside the centre changes charge or
    hydrogen count, [consistent_H T] = the precondition "all centre hydrogens explicit, or none".
    Hypotheses, all booleans evaluated by [run_c04] on every correspondence case: [pair_wfb G H] (both graphs simple
    with positive orders, same atoms, same elements: balanced and mapped) and [no_explicit_H G] (the "none explicit"
    branch of the precondition: every implicit-mode reaction of the corpora has no hydrogen atom at all).

    Map of the file (46 theorems).  Implicit mode, identity match: C04_consistent_H, C04_identity_match, C04_identity_glue,
    C04_centre_refuted / C04_centre_exact (what a centre cannot express: the 114 known findings).  Any rule in either mode:
    C04_identity_glue_any_rule(_symmetric).  Default mode: C04_identity_glue_default, C04_identity_match_default,
    C04_explicit_h_keeps_reaction / C04_explicit_h_any_order_keeps_reaction, C04_explicit_h_total_criterion,
    C04_any_match_explicit_h_total(_any_order), C04_identity_default_end(_total).
    Engine (C06) and pruning (C11): C04_identity_among_raw, C04_pruned_results, C04_canonical_codes_faithful,
    C04_engine_match_is_rule_match, C04_in_results_partial / _symmetric (any kept list).  The reactor OBJECT: C04_in_results_engine_partial
    (implicit), C04_in_results_engine_default (default; C04_in_results_engine_default_partial is the same with [crashed = false]
    as a premise), C04_in_results_verified_{implicit,default} (no VF2 premise), C04_smarts_contains, C04_reads_coherent,
    C04_stale_after_crash, C04_reverse_reaction.  Strategies comp / bt: C04_comp_bt_refuted, C04_comp_guard_refuted,
    C04_{comp,bt}_regenerates_partial (from some threshold on) and C04_{comp,bt}_regenerates_at (explicit bound),
    C04_separating_boolean, C04_own_{comp,bt}_{implicit,default} and C04_own_{comp,bt}_{implicit,default}_object (explicit bound).
    NOT covered by a theorem (correspondence + oracle only, see TESTED_NOT_PROVED in harness/props/C04.py): the H2 / H+ explicit
    re-match path of the default mode; RDKit parsing / serialisation and Standardize.fit.  Where a comment below calls a
    theorem PARTIAL and lists what it leaves open, the list is relative to that theorem; the items other theorems of this
    file close are named there. *)
From Coq Require Import List NArith ZArith Bool Permutation.
From SK Require Import lib.Mono model.C06_Model lib.C06_Spec proof.C06_Comp model.C11_Model.
From SK Require Import model.C03_Order.
From SK Require Import lib.Tok lib.LGraph model.C03_Model model.C04_Model model.C04_Reactor proof.C04_Any proof.C04_Proof proof.C04_DefaultProof proof.C04_Engine proof.C04_Prune proof.C04_Examples proof.C04_Object proof.C04_Chain proof.C04_Glue proof.C04_Template proof.C04_Default proof.C04_Explicit proof.C04_DefaultChain proof.C04_CompBt proof.C03_Spec proof.C04_Total proof.C04_TotalDefault proof.C04_MonoMatch proof.C04_DefaultChainTotal proof.C04_CompBtObject proof.C04_CompBtDefault proof.C04_TotalExamples proof.C04_ObjectExamples.
Import ListNotations.
Local Open Scope Z_scope.

(** the precondition is decided by a boolean function of the ITS; a reaction written without hydrogen atoms satisfies
    it and calls for the implicit mode *)
Theorem C04_consistent_H : forall G H : hostg,
  pair_wfb G H = true -> no_explicit_H G = true ->
  consistent_H (its_construct G H) = true /\ mode_E G H = false.
Proof. exact (fun G H W NH => conj (consistent G H W NH) (mode_implicit G H W NH)). Qed.
Print Assumptions C04_consistent_H.

(** the identity is a valid match of the prepared pattern of the own template on the own substrate -- centre or full
    ITS, forwards or backwards, with NO condition on the centre *)
Theorem C04_identity_match : forall (core invert : bool) (G H : hostg),
  pair_wfb G H = true -> no_explicit_H G = true ->
  exists (rc : its) (l r : molg), rule_of core invert G H = Some (rc, l, r) /\
    match_okb (substrate invert G H) (pattern_of l) (id_map (node_ids (pattern_of l))) = true /\
    match_rcb (substrate invert G H) rc (id_map (node_ids (pattern_of l))) = true.
Proof. exact identity_match. Qed.
Print Assumptions C04_identity_match.

(** gluing along the identity gives an ITS whose decomposition is the reaction again: always for the full ITS, and
    for the centre whenever it carries every change; backwards the products are taken to the reactants *)
Theorem C04_identity_glue : forall (core invert : bool) (G H : hostg),
  pair_wfb G H = true -> no_explicit_H G = true ->
  (core = true -> centre_carries (its_construct G H) = true) ->
  exists T : its, regenerate core invert G H = Some T /\
    regen_exact T (if invert then H else G) (if invert then G else H) = true.
Proof. exact identity_glue. Qed.
Print Assumptions C04_identity_glue.

(** the condition on the centre cannot be dropped: a reaction inside the precondition whose own centre template, glued
    along the identity, does NOT give the reaction back (water + ammonia -> hydroxide + ammonium; known findings
    *:centre:*:outside-centre-change) *)
Theorem C04_centre_refuted : exists G H : hostg,
  pair_wfb G H = true /\ no_explicit_H G = true /\ consistent_H (its_construct G H) = true /\
  centre_carries (its_construct G H) = false /\
  exists T : its, regenerate true false G H = Some T /\ regen_exact T G H = false /\ regen_folded T G H = false.
Proof. exact centre_refuted. Qed.
Print Assumptions C04_centre_refuted.

(** ... and it is exact: whenever some atom outside the centre changes hydrogen count or charge, the centre template
    glued along the identity does NOT give the reaction back, forwards or backwards (the general form of the 114
    known findings *:centre:*:outside-centre-change: not a defect of the gluing but of what a centre can express) *)
Theorem C04_centre_exact : forall (invert : bool) (G H : hostg),
  pair_wfb G H = true -> no_explicit_H G = true ->
  centre_carries (its_construct G H) = false ->
  exists T : its, regenerate true invert G H = Some T /\
    regen_exact T (if invert then H else G) (if invert then G else H) = false.
Proof. exact (fun invert G H W NH => centre_exact true invert G H W NH eq_refl). Qed.
Print Assumptions C04_centre_exact.

(** the gluing half for ANY rule and BOTH hydrogen modes: whenever the rule the reactor prepared describes the pair
    (A, B) = (substrate, other side with implicit hydrogens) -- the boolean [describesb], evaluated by [run_c04] on
    every correspondence case and recomputed independently by the harness -- the identity is a valid match and the
    glued ITS decomposes to (A, B).  In implicit mode the premise is PROVED from the precondition
    (C04_identity_glue); in the default mode (rule prepared by _strip_explicit_h) it is validated per case, and the
    result is the ITS BEFORE _explicit_h re-materialises the migrating hydrogens. *)
Theorem C04_identity_glue_any_rule : forall (A B : hostg) (rc : its),
  pair_wfb A B = true -> describesb A B rc = true ->
  match_rcb A rc (id_map (node_ids rc)) = true /\
  exists T : its, glue A rc (id_map (node_ids rc)) = Some T /\ regen_exact T A B = true.
Proof. exact glue_any_rule. Qed.
Print Assumptions C04_identity_glue_any_rule.

(** ... and so does the identity composed with any symmetry of that rule ([rule_aut rc s s']: a bijection of the rule's
    atoms with inverse [s'] preserving both tuples of every atom and the label of every bond; [aut_map rc s] sends
    pattern atom n to substrate atom s n): what the pruning by rule automorphisms may keep instead of the identity *)
Theorem C04_identity_glue_any_rule_symmetric : forall (A B : hostg) (rc : its) (s s' : N -> N),
  pair_wfb A B = true -> describesb A B rc = true -> rule_aut rc s s' ->
  match_rcb A rc (aut_map rc s) = true /\
  exists T : its, glue A rc (aut_map rc s) = Some T /\ regen_exact T A B = true.
Proof. exact glue_any_rule_symmetric. Qed.
Print Assumptions C04_identity_glue_any_rule_symmetric.

(** DEFAULT (explicit-hydrogen) mode, the "all centre hydrogens explicit" branch of the precondition, for the reaction's
    own templates -- centre or full ITS, forwards or backwards.  [default_okb A B tpl] is the boolean form of that way of
    writing (evaluated by [run_c04] on every case and recomputed by the harness): no atom changes its implicit hydrogen
    count and no count is negative; every hydrogen atom is bonded on both sides, and only to non-hydrogen atoms; if it
    is a template atom it is there with all its bonds (otherwise it is a spectator) and _strip_explicit_h can remove it (non-hydrogen neighbour on both template sides:
    excludes H2, H+).  Then: the reactor's rule exists (SynRule.__init__ with implicit_h=True never fails here), the
    matcher's pattern is its left side, the identity is a valid match on the substrate (own side with implicit
    hydrogens), and the glued ITS decomposes to the pair of implicit-hydrogen forms of the reaction's two sides.  This is
    the ITS BEFORE _explicit_h re-materialises the migrating hydrogens; that last stage is C04_explicit_h_keeps_reaction
    and C04_identity_default_end(_total).  The characterisation of _strip_explicit_h used here is C03's (proof/C03_StripCor.v). *)
Theorem C04_identity_glue_default : forall (core invert : bool) (G H : hostg),
  pair_wfb G H = true -> mode_E G H = true ->
  default_okb (if invert then H else G) (if invert then G else H) (template core invert G H) = true ->
  (core = true -> centre_carries (its_construct G H) = true) ->
  exists (rc : its) (l r : molg), rule_of core invert G H = Some (rc, l, r) /\ pattern_of l = l /\
    match_rcb (substrate invert G H) rc (id_map (node_ids (pattern_of l))) = true /\
    exists T : its, glue (substrate invert G H) rc (id_map (node_ids (pattern_of l))) = Some T /\
      regen_exact T (substrate invert G H) (h_to_implicit_host (if invert then G else H)) = true.
Proof. exact (fun core invert G H W ME OK CC => default_identity_glue core invert G H W OK CC ME). Qed.
Print Assumptions C04_identity_glue_default.

(** PARTIAL.  Full clause wanted: the reaction is among the reactor's results.  Proved: for ANY list of mappings the
    pruning keeps, if it contains the identity then its_list contains an ITS that decomposes to the reaction.  Not in this
    theorem: (i) the matcher returns the identity among the raw matches (C04_identity_among_raw); (ii) the pruning by rule
    automorphisms keeps the identity or a match gluing to the same ITS (C04_pruned_results); (iii) RDKit serialises the
    ITS to a reaction that Standardize.fit maps to the standardised input (oracle). *)
Theorem C04_in_results_partial : forall (core invert : bool) (G H : hostg) (kept : list mapping),
  pair_wfb G H = true -> no_explicit_H G = true ->
  (core = true -> centre_carries (its_construct G H) = true) ->
  In (identity core invert G H) kept ->
  exists T : its, In (Some T) (its_list core invert G H kept) /\
    regen_exact T (if invert then H else G) (if invert then G else H) = true.
Proof. exact (fun core invert G H kept W NH => in_results_partial core invert G H W NH kept). Qed.
Print Assumptions C04_in_results_partial.

(** PARTIAL, one premise closer: the pruning premise in exactly the form C11 proves it (C11_prune_complete_aut: every raw
    match is a kept match composed with a label-preserving automorphism of the rule centre): if the kept list contains
    the identity composed with a symmetry of the rule, its_list contains an ITS that decomposes to the reaction.  Premises
    here: the kept list contains such a mapping (discharged by C04_identity_among_raw and C04_pruned_results, which translate
    [match_okb] into C06's [is_mono] and C11's [is_automorphism] into [rule_aut]), and RDKit serialisation (oracle). *)
Theorem C04_in_results_symmetric : forall (core invert : bool) (G H : hostg) (s s' : N -> N) (kept : list mapping),
  pair_wfb G H = true -> no_explicit_H G = true ->
  (core = true -> centre_carries (its_construct G H) = true) ->
  rule_aut (template core invert G H) s s' -> In (aut_map (template core invert G H) s) kept ->
  exists T : its, In (Some T) (its_list core invert G H kept) /\
    regen_exact T (if invert then H else G) (if invert then G else H) = true.
Proof. exact (fun core invert G H s s' kept W NH => in_results_symmetric core invert G H W NH s s' kept). Qed.
Print Assumptions C04_in_results_symmetric.

(** first premise of the two theorems above, for strategy ALL: the identity IS among the raw matches.  [tr_host] /
    [tr_pat] translate substrate and pattern into the graphs of the search-engine model (model/C06_Model.v: node label =
    codes of element and charge + hydrogen count, edge label = code of the order, as the reactor selects them);
    [C06_Model.find enum (Cfg 0 0 T strict false)] is the exhaustive strategy without result limit; [vf2_contract] is
    C06's contract for the one VF2 enumeration call it makes (sound, complete, duplicate-free; monitored by C06's check,
    and met by the verified enumerator, C06_enumerator_meets_contract).  Proof: C04_identity_match + translation of
    [match_okb] into C06's [is_mono] + C06's all_exact.  The conclusion compares mappings as sets of pairs
    ([Permutation]), as Python dicts are.  (comp / bt: comp keeps only matches that put different pattern components
    into different substrate components and has the strict_cc_count guard, so it does not contain the identity in
    general; bt = comp or, if that is empty, all.) *)
Theorem C04_identity_among_raw : forall (core invert : bool) (G H : hostg)
    (enum : list N -> list N -> list C06_Model.mapping) (T : N) (strict : bool) (rc : its) (l r : molg),
  pair_wfb G H = true -> no_explicit_H G = true ->
  rule_of core invert G H = Some (rc, l, r) ->
  forallb (fun p => 0 <=? m_hc (snd p)) (gnodes (pattern_of l)) = true ->
  vf2_contract enum (tr_host (substrate invert G H)) (tr_pat (pattern_of l))
               (node_ids (tr_host (substrate invert G H))) (node_ids (tr_pat (pattern_of l))) ->
  (lenN (enum (node_ids (tr_host (substrate invert G H))) (node_ids (tr_pat (pattern_of l)))) <= T)%N ->
  exists m', In m' (C06_Model.find enum (Cfg 0 0 T strict false) (tr_host (substrate invert G H)) (tr_pat (pattern_of l))) /\
             Permutation (id_map (node_ids (pattern_of l))) m'.
Proof. exact identity_among_raw. Qed.
Print Assumptions C04_identity_among_raw.

(** the pruning premise DISCHARGED with C11's theorem (prune_complete_fun): take any raw list of injective maps
    defined on atoms of the rule that contains the identity as a set of pairs (C04_identity_among_raw provides it for
    strategy ALL); hand the rule to C11's model of the pruning ([C11_Model.prune], first match of every class under the
    automorphisms of the rule centre) through node / edge codes that are faithful on the rule ([faithful]: equal codes
    only for atoms with equal tuples / bonds with equal labels -- the harness interns attribute values); then its_list
    built from what the pruning keeps contains an ITS that decomposes to the reaction.  With C04_identity_among_raw
    this is the whole chain substrate -> matches -> pruning -> gluing of the implicit mode, up to RDKit serialisation. *)
Theorem C04_pruned_results : forall (cn : inode -> N) (ce : iedge -> N) (core invert : bool) (G H : hostg)
    (raw : list C03_Model.mapping),
  faithful cn ce (template core invert G H) ->
  pair_wfb G H = true -> no_explicit_H G = true ->
  (core = true -> centre_carries (its_construct G H) = true) ->
  (forall m, In m raw -> NoDup (map fst m) /\ NoDup (map snd m) /\
                         forall p h, In (p, h) m -> In p (node_ids (template core invert G H))) ->
  (exists m0, In m0 raw /\ Permutation (id_map (node_ids (template core invert G H))) m0) ->
  exists T : its,
    In (Some T) (its_list core invert G H (C11_Model.prune (fun m : C03_Model.mapping => m) (tr_rule cn ce (template core invert G H)) raw)) /\
    regen_exact T (if invert then H else G) (if invert then G else H) = true.
Proof. exact (fun cn ce core invert G H raw Hc W NH CC => pruned_results cn ce core invert G H Hc W NH CC raw). Qed.
Print Assumptions C04_pruned_results.

(** * the reactor as an OBJECT (model/C04_Reactor.v): options, the caches _mappings / _flag_pattern_has_explicit_H / _its /
    _smarts behind the lazily computed attributes, the engine call through C06's call interface [find_api], the pruning
    through C11's [prune] on canonical attribute codes, _glue_graph per kept mapping, _explicit_h over the list, _to_smarts,
    reverse_reaction.  Oracle inputs: [enum] (one VF2 enumeration), [rematch] (the re-matching of the explicit-hydrogen
    path), [ser] (RDKit's graph_to_smi of the two sides of the i-th ITS). *)

(** the canonical codes [cn_of] / [ce_of] (position of the first atom / bond of the rule with the same label) meet the
    premise [faithful] of C04_pruned_results: with them that theorem has no hypothesis about codes left *)
Theorem C04_canonical_codes_faithful : forall t : its, faithful (cn_of t) (ce_of t) t.
Proof. exact canon_faithful. Qed.
Print Assumptions C04_canonical_codes_faithful.

(** PARTIAL, through the whole reactor.  Full clause wanted: for every reaction in the precondition, every template
    kind, direction and strategy, the standardised reaction is among the standardised results.  Proved, for the implicit
    mode and the exhaustive strategy (the reactor's default) with no pre-filter, for ANY embed_threshold [thr] that the
    number of matches does not exceed: a fresh reactor built from the reaction's own template on its own substrate
    (i) has, in its_list, an ITS [T] whose decomposition is the reaction -- the engine is called through C06's interface
    [api_engine enum] = find_subgraph_mappings(strategy, threshold, pre_filter) under C06's VF2 contract for the one
    enumeration it makes, the pruning is C11's [prune] by the automorphisms of the rule on the canonical codes (applied only
    when there is more than one raw match), and _glue_graph runs on every kept mapping; and (ii) whenever RDKit writes
    the two sides of that [T] as strings [r], [p] (non-empty, without '>'), smarts_list contains 'r>>p' -- turned round
    again ('p>>r', i.e. reactants>>products of the original reaction) when the reactor runs backwards.
    Not in this theorem: the default (explicit-hydrogen) mode at this level (C04_in_results_engine_default); strategies
    comp / bt (C04_{comp,bt}_regenerates_at and the C04_own_* theorems; comp keeps only component-separating matches and has
    the strict_cc_count guard); that RDKit parses the unmapped side to this substrate and writes [T] back as a string that
    Standardize.fit maps to the standardised reaction (oracle). *)
Theorem C04_in_results_engine_partial : forall (enum : list N -> list N -> list C06_Model.mapping)
    (rematch : nat -> hostg -> molg -> list C03_Model.mapping) (ser : nat -> its -> option bytes * option bytes)
    (core invert : bool) (G H : hostg) (thr : option N),
  pair_wfb G H = true -> no_explicit_H G = true ->
  (core = true -> centre_carries (its_construct G H) = true) ->
  forallb (fun p : N * mnode => 0 <=? m_hc (snd p)) (gnodes (pattern_of (dec_side iG C03_Model.eG (template core invert G H)))) = true ->
  vf2_contract enum (tr_host (substrate invert G H)) (tr_pat (pattern_of (dec_side iG C03_Model.eG (template core invert G H))))
               (node_ids (tr_host (substrate invert G H)))
               (node_ids (tr_pat (pattern_of (dec_side iG C03_Model.eG (template core invert G H))))) ->
  (lenN (enum (node_ids (tr_host (substrate invert G H)))
              (node_ids (tr_pat (pattern_of (dec_side iG C03_Model.eG (template core invert G H)))))) <= dflt DEFAULT_THRESHOLD thr)%N ->
  rule_of core invert G H = Some (template core invert G H, dec_side iG C03_Model.eG (template core invert G H),
                                  dec_side iH C03_Model.eH (template core invert G H)) /\
  exists (gs : list its) (T : its),
    fst (read_its (api_engine enum) rematch (own_opts invert false (SMember 0%N) thr false) (substrate invert G H)
                  (template core invert G H, dec_side iG C03_Model.eG (template core invert G H),
                   dec_side iH C03_Model.eH (template core invert G H)) fresh) = Some gs /\
    In T gs /\ regen_exact T (if invert then H else G) (if invert then G else H) = true /\
    forall (i : nat) (r p : bytes),
      nth_error gs i = Some T -> ser i T = (Some r, Some p) -> r ++ arrow ++ p <> [] -> no_gt r -> no_gt p ->
      exists ss : list bytes,
        fst (read_smarts (api_engine enum) rematch ser (own_opts invert false (SMember 0%N) thr false) (substrate invert G H)
                         (template core invert G H, dec_side iG C03_Model.eG (template core invert G H),
                          dec_side iH C03_Model.eH (template core invert G H)) fresh) = Some ss /\
        In (if invert then p ++ arrow ++ r else r ++ arrow ++ p) ss.
Proof. exact chain_full. Qed.
Print Assumptions C04_in_results_engine_partial.

(** the caches are coherent (history cases of the harness, for ALL scripts): if _explicit_h does not raise on any glued
    ITS ([crashed] = false for the kept mappings), then whatever attributes are read from one reactor -- mappings, its_list,
    smarts_list, smiles_list, mapping_count, len(smarts_list) -- how often and in which order, every answer is the answer
    a fresh reactor gives to that read.  In particular smarts_list is reversed once, not on every read; its_list uses
    the explicit-hydrogen flag the pattern really had.  For any engine, re-matcher, serialiser, options, substrate, rule. *)
Theorem C04_reads_coherent : forall (engine : sarg -> option N -> bool -> C06_Model.graph -> C06_Model.graph -> outcome)
    (rematch : nat -> hostg -> molg -> list C03_Model.mapping) (ser : nat -> its -> option bytes * option bytes)
    (o : ropts) (host : hostg) (rule : triple),
  (forall ms, compute_mappings engine o host rule = Some ms -> crashed rematch o host rule ms = false) ->
  forall s : list attr,
    fst (run_script engine rematch ser o host rule s fresh) = map (fun a => fst (read engine rematch ser o host rule a fresh)) s.
Proof. exact reads_coherent. Qed.
Print Assumptions C04_reads_coherent.

(** ... and the hypothesis cannot be dropped: the code keeps the half-processed list when _explicit_h raises
    (self._its is assigned before the loop over _explicit_h).  Exact description: the first read of its_list raises
    (None); from then on its_list returns the list in which the graphs before the failing one went through _explicit_h
    and the others did not ([its_stored]), and smarts_list serialises that list -- no read raises again.  Replayed on the
    implementation (harness cases hand:crash-rule:obj:*, witness proof/C04_ObjectExamples.v cr_hyps / cr_reads); outside
    the precondition of C04 (needs a hand-made rule object), hence documented, not repaired. *)
Theorem C04_stale_after_crash : forall (engine : sarg -> option N -> bool -> C06_Model.graph -> C06_Model.graph -> outcome)
    (rematch : nat -> hostg -> molg -> list C03_Model.mapping) (ser : nat -> its -> option bytes * option bytes)
    (o : ropts) (host : hostg) (rule : triple) (ms : list C03_Model.mapping),
  compute_mappings engine o host rule = Some ms -> crashed rematch o host rule ms = true ->
  fst (read_its engine rematch o host rule fresh) = None /\
  (let st1 := snd (read_its engine rematch o host rule fresh) in
   read_its engine rematch o host rule st1 = (Some (its_stored rematch o host rule ms), st1) /\
   fst (read_smarts engine rematch ser o host rule st1) = Some (smarts_of ser o (its_stored rematch o host rule ms))).
Proof. exact stale_after_crash. Qed.
Print Assumptions C04_stale_after_crash.

(** reverse_reaction / split(">>") on byte strings: for sides without '>' (SMILES have none) reverse_reaction swaps the
    sides, twice is the identity, and the last piece (smiles_list) is the product side *)
Theorem C04_reverse_reaction : forall r p : bytes, no_gt r -> no_gt p ->
  reverse_reaction (r ++ arrow ++ p) = p ++ arrow ++ r /\
  reverse_reaction (reverse_reaction (r ++ arrow ++ p)) = r ++ arrow ++ p /\
  last_piece (r ++ arrow ++ p) = p.
Proof. exact reverse_reaction_all. Qed.
Print Assumptions C04_reverse_reaction.

(** * the _explicit_h stage (default mode) *)

(** _explicit_h does not change the reaction in implicit-hydrogen normal form.  For ANY ITS [T] with distinct atom ids
    whose two sides are, exactly, the implicit-hydrogen forms of two molecule graphs A and B ([regen_exact T (h_to_implicit_host
    A) (h_to_implicit_host B)]: what C04_identity_glue_default / C04_identity_glue_any_rule establish for the glued ITS), with
    A and B well formed, closed and foldable (every hydrogen atom has a neighbour and only non-hydrogen neighbours): if
    _explicit_h returns [T'] -- with whatever list of migrations -- then [T'] decomposes to (A, B) in implicit-hydrogen
    normal form.  Proof: every re-materialised hydrogen hangs on its donor only (reactant side) / its recipient only
    (product side), the counts of both were lowered by one per hydrogen, and h_to_implicit folds each of them back:
    h_to_implicit (side of T') = side of T, exactly (proof/C04_Explicit.v explicit_left / explicit_right). *)
Theorem C04_explicit_h_keeps_reaction : forall (T T' : its) (ms : list (N * N)) (A B : hostg),
  wf_hostb A = true -> wf_hostb B = true -> foldable A -> foldable B -> closed A -> closed B ->
  NoDup (node_ids T) ->
  regen_exact T (h_to_implicit_host A) (h_to_implicit_host B) = true ->
  explicit_h T = Some (T', ms) ->
  regen_folded T' A B = true.
Proof. exact explicit_end. Qed.
Print Assumptions C04_explicit_h_keeps_reaction.

(** the DEFAULT mode to the end of its_list, for the reaction's own templates (centre or full ITS, forwards or backwards):
    under the hypotheses of C04_identity_glue_default, [regenerate] -- rule preparation by _strip_explicit_h, gluing
    along the identity, _explicit_h -- returns an ITS that decomposes to the reaction in implicit-hydrogen normal form
    ([regen_folded]: the comparison the harness makes on every case), PROVIDED _explicit_h does not raise on the glued ITS.
    C03_explicitH_crash_iff characterises that premise (every hydrogen-transfer group has at least as many places to take
    hydrogens as hydrogens to give); C04_identity_default_end_total derives it from the static boolean [own_valence_okb]. *)
Theorem C04_identity_default_end : forall (core invert : bool) (G H : hostg),
  pair_wfb G H = true -> mode_E G H = true ->
  default_okb (if invert then H else G) (if invert then G else H) (template core invert G H) = true ->
  (core = true -> centre_carries (its_construct G H) = true) ->
  (forall rc l r T, rule_of core invert G H = Some (rc, l, r) ->
     glue (substrate invert G H) rc (id_map (node_ids (pattern_of l))) = Some T -> explicit_h T <> None) ->
  exists T' : its, regenerate core invert G H = Some T' /\
    regen_folded T' (if invert then H else G) (if invert then G else H) = true.
Proof. exact default_identity_end. Qed.
Print Assumptions C04_identity_default_end.

(** * strategies comp / bt: the clause is REFUTED (known findings hand:intra-spectator:centre:fwd:{comp,bt}:not-separating)

    The property text quantifies over the strategies comp / bt / all.  C06 fixes what comp returns: only the matches that
    put different components of the pattern into different components of the substrate (and nothing in the strict_cc_count
    guard region); bt returns comp's answer when it is not empty.  So whenever the reaction is INTRAMOLECULAR for a pattern
    with several components (a centre whose changed bonds are not connected on the reactant side) and a spectator molecule
    offers the missing group, the identity -- a valid match -- is not among the raw matches of comp or bt, and the own template
    does not regenerate the reaction: witness 5-bromopentan-1-ol + methanol -> tetrahydropyran + HBr + methanol, centre
    template, forwards, with C06's verified enumerator as VF2 (so the VF2 contract holds).  The exhaustive strategy regenerates
    it (C04_in_results_engine_partial).  Not repaired: the behaviour is C06's specification of the two strategies; the
    oracle emits the known-finding key only when the identity is a valid match that does not separate the pattern components,
    and then the raw matches are also enumerated by the model. *)
Theorem C04_comp_bt_refuted : exists (G H : hostg) (rule : triple),
  pair_wfb G H = true /\ no_explicit_H G = true /\ consistent_H (its_construct G H) = true /\
  centre_carries (its_construct G H) = true /\ rule_of true false G H = Some rule /\
  let host := substrate false G H in
  let pat := pattern_of (snd (fst rule)) in
  let enum := monos_on (tr_host host) (tr_pat pat) in
  let regenerates (s : sarg) :=
    match read_its (api_engine enum) no_rematch (own_opts false false s None false) host rule fresh with
    | (Some gs, _) => existsb (fun T => regen_folded T G H) gs
    | _ => false
    end in
  match_okb host pat (id_map (node_ids pat)) = true /\
  regenerates (SMember 0%N) = true /\ regenerates (SStr [99; 111; 109; 112]%N) = false /\ regenerates (SStr [98; 116]%N) = false.
Proof. exact comp_bt_refuted. Qed.
Print Assumptions C04_comp_bt_refuted.

(** * the default mode through the engine, the pruning and the reactor object *)

(** default-mode counterpart of C04_identity_match: under the hypotheses of C04_identity_glue_default the reactor's rule
    exists, its pattern has no explicit hydrogen left (the matcher uses it as it is: no re-match path), and the identity
    passes the matcher's node / edge predicates on the substrate.  Proof: the stripped pattern [l] IS the reactant side of the
    prepared rule -- same atoms, elements, charges, hydrogen counts and (positive) bond orders ([left_of], from C03's exact
    description of _strip_explicit_h) -- so a match of the rule is a match of the pattern. *)
Theorem C04_identity_match_default : forall (core invert : bool) (G H : hostg),
  pair_wfb G H = true -> mode_E G H = true ->
  default_okb (if invert then H else G) (if invert then G else H) (template core invert G H) = true ->
  (core = true -> centre_carries (its_construct G H) = true) ->
  exists (rc : its) (l r : molg), rule_of core invert G H = Some (rc, l, r) /\ has_XH l = false /\ left_of rc l /\
    match_okb (substrate invert G H) (pattern_of l) (id_map (node_ids (pattern_of l))) = true.
Proof. exact default_identity_match. Qed.
Print Assumptions C04_identity_match_default.

(** PARTIAL -- the default (explicit-hydrogen) mode, the library's own default, through the whole reactor object for the
    exhaustive strategy: under the hypotheses of C04_identity_glue_default, C06's VF2 contract for the one enumeration, a
    threshold that is not exceeded and non-negative pattern counts (boolean, monitored), IF _explicit_h raises on none of
    the glued ITS graphs ([crashed] = false, a premise here; C04_in_results_engine_default proves it), then a
    fresh reactor -- engine call, pruning by the rule's automorphisms on the canonical codes, _glue_graph on every kept
    mapping, _explicit_h over the list -- has in its_list an ITS that decomposes to the reaction in implicit-hydrogen
    normal form.  With C04_in_results_engine_partial (implicit mode) this covers both branches of the precondition for
    strategy ALL up to RDKit.  Not in this theorem: totality of _explicit_h (C04_any_match_explicit_h_total,
    C04_in_results_engine_default); H2 / H+ (re-match path, outside default_okb); comp / bt (refuted in general:
    C04_comp_bt_refuted); RDKit + Standardize.fit. *)
Theorem C04_in_results_engine_default_partial : forall (enum : list N -> list N -> list C06_Model.mapping)
    (rematch : nat -> hostg -> molg -> list C03_Model.mapping) (core invert : bool) (G H : hostg) (thr : option N),
  pair_wfb G H = true -> mode_E G H = true ->
  default_okb (if invert then H else G) (if invert then G else H) (template core invert G H) = true ->
  (core = true -> centre_carries (its_construct G H) = true) ->
  forall (rc : its) (l r : molg),
  rule_of core invert G H = Some (rc, l, r) ->
  forallb (fun p : N * mnode => 0 <=? m_hc (snd p)) (gnodes l) = true ->
  vf2_contract enum (tr_host (substrate invert G H)) (tr_pat l) (node_ids (tr_host (substrate invert G H))) (node_ids (tr_pat l)) ->
  (lenN (enum (node_ids (tr_host (substrate invert G H))) (node_ids (tr_pat l))) <= dflt DEFAULT_THRESHOLD thr)%N ->
  (forall ms, compute_mappings (api_engine enum) (own_opts invert true (SMember 0%N) thr false) (substrate invert G H) (rc, l, r) = Some ms ->
              crashed rematch (own_opts invert true (SMember 0%N) thr false) (substrate invert G H) (rc, l, r) ms = false) ->
  exists (gs : list its) (T' : its),
    fst (read_its (api_engine enum) rematch (own_opts invert true (SMember 0%N) thr false) (substrate invert G H) (rc, l, r) fresh) = Some gs /\
    In T' gs /\ regen_folded T' (if invert then H else G) (if invert then G else H) = true.
Proof. exact default_chain. Qed.
Print Assumptions C04_in_results_engine_default_partial.

(** * strategies comp / bt, the positive side (with C04_comp_bt_refuted: the whole picture)

    For ANY rule [rc] that describes a pair (A, B) ([describes]: proof/C04_Glue.v -- the own templates in implicit mode by
    C04_identity_glue's proof, the prepared rule of the default mode by C04_identity_glue_default's) together with its pattern
    [l] ([left_of rc l]: same atoms, the elements / charges / hydrogen counts of the reactant tuples, the bonds with positive
    reactant order -- [own_left_of] in implicit mode, C04_identity_match_default in the default mode), under C06's contract
    [oracle_ok] for every VF2 call the component-aware search can make (whole graphs and pattern component x substrate
    component; met by the verified enumerator: C06_enumerator_oracle_ok), [hcc] / [pcc] = number of connected components of
    substrate / pattern, strict_cc_count at its default (True), for every embed_threshold from some [T0] on:

    comp: outside the strict_cc_count guard region (not 0 < pcc < hcc), if hcc < pcc (then comp is exhaustive) or the identity
    SEPARATES the pattern components ([separating], lib/C06_Spec.v: two atoms in one substrate component only if they are in one
    pattern component), the engine answers and among the mappings the pruning keeps there is one whose glued ITS decomposes
    to (A, B);
    bt: the same, and also inside the guard region (comp returns nothing there, bt falls back to the exhaustive strategy).
    The remaining case -- identity not separating, hcc = pcc, comp's answer not empty -- is where both lose the reaction
    (C04_comp_bt_refuted).  PARTIAL with respect to the property text for the same reasons as C04_in_results_engine_partial
    (RDKit; in the default mode _explicit_h's totality). *)
Theorem C04_comp_regenerates_partial : forall (enum : list N -> list N -> list C06_Model.mapping)
    (A B : hostg) (rc : its) (l r : molg),
  pair_wf A B -> describes A B rc -> left_of rc l -> has_XH l = false ->
  forallb (fun p : N * mnode => 0 <=? m_hc (snd p)) (gnodes l) = true ->
  gwf (tr_host A) -> gwf (tr_pat l) -> oracle_ok enum (tr_host A) (tr_pat l) ->
  (0 <? length (comps (tr_pat l)))%nat && (length (comps (tr_pat l)) <? length (comps (tr_host A)))%nat = false ->
  ((length (comps (tr_host A)) <? length (comps (tr_pat l)))%nat = true \/
   separating (tr_host A) (tr_pat l) (id_map (node_ids l))) ->
  exists T0 : N, forall (T : N) (o : ropts), (T0 <= T)%N ->
    o_strategy o = SMember 1%N -> o_thr o = Some T -> o_pref o = false ->
    exists (ms : list C03_Model.mapping) (y : C03_Model.mapping) (T' : its),
      compute_mappings (api_engine enum) o A (rc, l, r) = Some ms /\ In y ms /\
      glue A rc y = Some T' /\ regen_exact T' A B = true.
Proof. exact comp_regenerates. Qed.
Print Assumptions C04_comp_regenerates_partial.

Theorem C04_bt_regenerates_partial : forall (enum : list N -> list N -> list C06_Model.mapping)
    (A B : hostg) (rc : its) (l r : molg),
  pair_wf A B -> describes A B rc -> left_of rc l -> has_XH l = false ->
  forallb (fun p : N * mnode => 0 <=? m_hc (snd p)) (gnodes l) = true ->
  gwf (tr_host A) -> gwf (tr_pat l) -> oracle_ok enum (tr_host A) (tr_pat l) ->
  ((0 <? length (comps (tr_pat l)))%nat && (length (comps (tr_pat l)) <? length (comps (tr_host A)))%nat = true \/
   (length (comps (tr_host A)) <? length (comps (tr_pat l)))%nat = true \/
   separating (tr_host A) (tr_pat l) (id_map (node_ids l))) ->
  exists T0 : N, forall (T : N) (o : ropts), (T0 <= T)%N ->
    o_strategy o = SMember 2%N -> o_thr o = Some T -> o_pref o = false ->
    exists (ms : list C03_Model.mapping) (y : C03_Model.mapping) (T' : its),
      compute_mappings (api_engine enum) o A (rc, l, r) = Some ms /\ In y ms /\
      glue A rc y = Some T' /\ regen_exact T' A B = true.
Proof. exact bt_regenerates. Qed.
Print Assumptions C04_bt_regenerates_partial.

(** the premise [separating] of the two theorems above for the identity match, as the boolean [id_separatingb] that the
    correspondence evaluates on every case (next to the numbers of components of substrate and pattern) and that the harness
    recomputes independently with networkx *)
Theorem C04_separating_boolean : forall (H P : C06_Model.graph),
  gwf H -> gwf P -> incl (node_ids P) (node_ids H) ->
  id_separatingb H P = true -> separating H P (id_map (node_ids P)).
Proof. exact id_separatingb_sound. Qed.
Print Assumptions C04_separating_boolean.

(** * comp / bt for the reaction's OWN templates: the four instances of the two theorems above (implicit mode: the template with
    its decomposed reactant side; default mode: the prepared rule with the stripped pattern, substrate and other side with
    implicit hydrogens, result before _explicit_h -- C04_explicit_h_keeps_reaction takes it to the end), with the separation
    premise as the monitored boolean.  Together with C04_in_results_engine_partial / _default_partial (strategy ALL) and
    C04_comp_bt_refuted this settles the quantifier "strategies comp / bt / all" of the property up to RDKit. *)
Theorem C04_own_comp_implicit : forall (enum : list N -> list N -> list C06_Model.mapping) (core invert : bool) (G H : hostg),
  pair_wfb G H = true -> no_explicit_H G = true ->
  (core = true -> centre_carries (its_construct G H) = true) ->
  forallb (fun p : N * mnode => 0 <=? m_hc (snd p)) (gnodes (dec_side iG C03_Model.eG (template core invert G H))) = true ->
  oracle_ok enum (tr_host (if invert then H else G)) (tr_pat (dec_side iG C03_Model.eG (template core invert G H))) ->
  (0 <? length (comps (tr_pat (dec_side iG C03_Model.eG (template core invert G H)))))%nat && (length (comps (tr_pat (dec_side iG C03_Model.eG (template core invert G H)))) <? length (comps (tr_host (if invert then H else G))))%nat = false ->
  ((length (comps (tr_host (if invert then H else G))) <? length (comps (tr_pat (dec_side iG C03_Model.eG (template core invert G H)))))%nat = true \/ id_separatingb (tr_host (if invert then H else G)) (tr_pat (dec_side iG C03_Model.eG (template core invert G H))) = true) ->
  exists T0 : N, forall (T : N) (o : ropts), (T0 <= T)%N ->
    o_strategy o = SMember 1%N -> o_thr o = Some T -> o_pref o = false ->
    exists (ms : list C03_Model.mapping) (y : C03_Model.mapping) (T' : its),
      compute_mappings (api_engine enum) o (if invert then H else G) (template core invert G H, dec_side iG C03_Model.eG (template core invert G H), dec_side iH C03_Model.eH (template core invert G H)) = Some ms /\ In y ms /\
      glue (if invert then H else G) (template core invert G H) y = Some T' /\ regen_exact T' (if invert then H else G) (if invert then G else H) = true.
Proof. exact own_comp_implicit. Qed.
Print Assumptions C04_own_comp_implicit.

Theorem C04_own_bt_implicit : forall (enum : list N -> list N -> list C06_Model.mapping) (core invert : bool) (G H : hostg),
  pair_wfb G H = true -> no_explicit_H G = true ->
  (core = true -> centre_carries (its_construct G H) = true) ->
  forallb (fun p : N * mnode => 0 <=? m_hc (snd p)) (gnodes (dec_side iG C03_Model.eG (template core invert G H))) = true ->
  oracle_ok enum (tr_host (if invert then H else G)) (tr_pat (dec_side iG C03_Model.eG (template core invert G H))) ->
  ((0 <? length (comps (tr_pat (dec_side iG C03_Model.eG (template core invert G H)))))%nat && (length (comps (tr_pat (dec_side iG C03_Model.eG (template core invert G H)))) <? length (comps (tr_host (if invert then H else G))))%nat = true \/ (length (comps (tr_host (if invert then H else G))) <? length (comps (tr_pat (dec_side iG C03_Model.eG (template core invert G H)))))%nat = true \/ id_separatingb (tr_host (if invert then H else G)) (tr_pat (dec_side iG C03_Model.eG (template core invert G H))) = true) ->
  exists T0 : N, forall (T : N) (o : ropts), (T0 <= T)%N ->
    o_strategy o = SMember 2%N -> o_thr o = Some T -> o_pref o = false ->
    exists (ms : list C03_Model.mapping) (y : C03_Model.mapping) (T' : its),
      compute_mappings (api_engine enum) o (if invert then H else G) (template core invert G H, dec_side iG C03_Model.eG (template core invert G H), dec_side iH C03_Model.eH (template core invert G H)) = Some ms /\ In y ms /\
      glue (if invert then H else G) (template core invert G H) y = Some T' /\ regen_exact T' (if invert then H else G) (if invert then G else H) = true.
Proof. exact own_bt_implicit. Qed.
Print Assumptions C04_own_bt_implicit.

Theorem C04_own_comp_default : forall (enum : list N -> list N -> list C06_Model.mapping) (core invert : bool) (G H : hostg),
  pair_wfb G H = true -> mode_E G H = true ->
  default_okb (if invert then H else G) (if invert then G else H) (template core invert G H) = true ->
  (core = true -> centre_carries (its_construct G H) = true) ->
  forall (rc : its) (l r : molg), rule_of core invert G H = Some (rc, l, r) ->
  oracle_ok enum (tr_host (substrate invert G H)) (tr_pat l) ->
  (0 <? length (comps (tr_pat l)))%nat && (length (comps (tr_pat l)) <? length (comps (tr_host (substrate invert G H))))%nat = false ->
  ((length (comps (tr_host (substrate invert G H))) <? length (comps (tr_pat l)))%nat = true \/ id_separatingb (tr_host (substrate invert G H)) (tr_pat l) = true) ->
  exists T0 : N, forall (T : N) (o : ropts), (T0 <= T)%N ->
    o_strategy o = SMember 1%N -> o_thr o = Some T -> o_pref o = false ->
    exists (ms : list C03_Model.mapping) (y : C03_Model.mapping) (T' : its),
      compute_mappings (api_engine enum) o (substrate invert G H) (rc, l, r) = Some ms /\ In y ms /\
      glue (substrate invert G H) (rc) y = Some T' /\ regen_exact T' (substrate invert G H) (h_to_implicit_host (if invert then G else H)) = true.
Proof.
  exact (fun enum core invert G H W ME OK CC rc l r Er =>
           own_comp_default enum core invert G H W ME OK CC rc l r Er (default_pattern_nonneg core invert G H rc l r W ME OK CC Er)).
Qed.
Print Assumptions C04_own_comp_default.

Theorem C04_own_bt_default : forall (enum : list N -> list N -> list C06_Model.mapping) (core invert : bool) (G H : hostg),
  pair_wfb G H = true -> mode_E G H = true ->
  default_okb (if invert then H else G) (if invert then G else H) (template core invert G H) = true ->
  (core = true -> centre_carries (its_construct G H) = true) ->
  forall (rc : its) (l r : molg), rule_of core invert G H = Some (rc, l, r) ->
  oracle_ok enum (tr_host (substrate invert G H)) (tr_pat l) ->
  ((0 <? length (comps (tr_pat l)))%nat && (length (comps (tr_pat l)) <? length (comps (tr_host (substrate invert G H))))%nat = true \/ (length (comps (tr_host (substrate invert G H))) <? length (comps (tr_pat l)))%nat = true \/ id_separatingb (tr_host (substrate invert G H)) (tr_pat l) = true) ->
  exists T0 : N, forall (T : N) (o : ropts), (T0 <= T)%N ->
    o_strategy o = SMember 2%N -> o_thr o = Some T -> o_pref o = false ->
    exists (ms : list C03_Model.mapping) (y : C03_Model.mapping) (T' : its),
      compute_mappings (api_engine enum) o (substrate invert G H) (rc, l, r) = Some ms /\ In y ms /\
      glue (substrate invert G H) (rc) y = Some T' /\ regen_exact T' (substrate invert G H) (h_to_implicit_host (if invert then G else H)) = true.
Proof.
  exact (fun enum core invert G H W ME OK CC rc l r Er =>
           own_bt_default enum core invert G H W ME OK CC rc l r Er (default_pattern_nonneg core invert G H rc l r W ME OK CC Er)).
Qed.
Print Assumptions C04_own_bt_default.

(** from its_list to smarts_list, for ANY reactor (engine, options, substrate, rule -- both hydrogen modes, every strategy): if
    the first read of its_list returns [gs], its [i]-th ITS is [T] and RDKit writes the two sides of [T] as non-empty strings
    [r], [p] without '>', then smarts_list contains 'r>>p', turned round ('p>>r') exactly when the reactor runs backwards --
    the filter of refused / empty serialisations and the single reversal of [smarts_list] do not lose or double-reverse it.
    With C04_in_results_engine_default_partial this gives the default mode what C04_in_results_engine_partial states for the
    implicit one. *)
Theorem C04_smarts_contains : forall (engine : sarg -> option N -> bool -> C06_Model.graph -> C06_Model.graph -> outcome)
    (rematch : nat -> hostg -> molg -> list C03_Model.mapping) (ser : nat -> its -> option bytes * option bytes)
    (o : ropts) (host : hostg) (rule : triple) (gs : list its) (T : its) (i : nat) (r p : bytes),
  fst (read_its engine rematch o host rule fresh) = Some gs ->
  nth_error gs i = Some T -> ser i T = (Some r, Some p) -> r ++ arrow ++ p <> [] -> no_gt r -> no_gt p ->
  exists ss : list bytes, fst (read_smarts engine rematch ser o host rule fresh) = Some ss /\
    In (if o_invert o then p ++ arrow ++ r else r ++ arrow ++ p) ss.
Proof. exact smarts_contains. Qed.
Print Assumptions C04_smarts_contains.

(** * when does _explicit_h NOT raise?

    A criterion on ANY ITS [T]: suppose the hydrogen change of every atom ([dl_of T n] = reactant-side minus product-side
    count) is the sum over a list [Hs] of "transfers" of a contribution [w h n], every atom a transfer touches carries one
    pair id of that transfer in its h_pairs, and a transfer gives away no more than it takes (its contributions over any
    duplicate-free set of atoms that contains all it touches sum to <= 0).  Then every connected component of the pairing graph
    of _explicit_h is balanced and _explicit_h returns (no StopIteration).  Proof: [components] (C03_Model) are duplicate-free,
    pairwise disjoint and every h_pairs group lies inside one of them; [pair_to_nodes] lists every atom under every id it
    carries (proof/C04_Total.v; C03 has the converse directions); then C03_explicitH_crash_iff. *)
Theorem C04_explicit_h_total_criterion : forall (T : its) (X : Type) (Hs : list X) (w : X -> N -> Z),
  (forall n : N, dl_of T n = sumX (fun h : X => w h n) Hs) ->
  (forall h : X, In h Hs ->
     exists pid : N, forall n : N, w h n <> 0 -> exists A : inode, In (n, A) (gnodes T) /\ In pid (hp_of A)) ->
  (forall (h : X) (c : list N), In h Hs -> NoDup c -> (forall n : N, w h n <> 0 -> In n c) -> sumF (w h) c <= 0) ->
  explicit_h T <> None.
Proof. exact explicit_h_total. Qed.
Print Assumptions C04_explicit_h_total_criterion.

(** ... and with it the default mode reaches the end of its_list with NO premise about _explicit_h: for the reaction's own
    templates the static boolean [own_valence_okb] stands where C04_identity_default_end has its premise (evaluated by the
    correspondence on every case and recomputed by the harness): every hydrogen atom of the template has at most as many bonds
    to rule atoms on the reactant side as on the product side -- for a hydrogen with one bond before and one bond after, 1 <= 1.
    The transfers are the stripped hydrogens; that all atoms bonded to one of them share its pair id is C03's
    completeness of the pair ids (synrule_default_pairs_complete); the hydrogen counts of the prepared rule are
    bond counts (synrule_default_pointwise).  FULL for the identity match; the other kept mappings of the reactor
    (C04_in_results_engine_default_partial) keep the premise [crashed = false]. *)
Theorem C04_identity_default_end_total : forall (core invert : bool) (G H : hostg),
  pair_wfb G H = true -> mode_E G H = true ->
  default_okb (if invert then H else G) (if invert then G else H) (template core invert G H) = true ->
  (core = true -> centre_carries (its_construct G H) = true) ->
  own_valence_okb core invert G H = true ->
  exists T' : its, regenerate core invert G H = Some T' /\
    regen_folded T' (if invert then H else G) (if invert then G else H) = true.
Proof. exact default_identity_end_total. Qed.
Print Assumptions C04_identity_default_end_total.

(** * _explicit_h never raises; the default mode through the whole reactor with no premise about it *)

(** _explicit_h returns on the ITS glued from a default-mode rule along ANY valid match onto ANY substrate: for a template [tpl]
    that describes a pair (A, B) written the default-mode way, its prepared rule (rc, l, r), any substrate [host], any mapping [y]
    the reactor's predicates accept on the rule ([match_rcb]) and the ITS [T] glued along it -- if the template's hydrogens
    satisfy [valence_okb].  (_explicit_h only looks at the matched atoms: they carry the rule's hydrogen changes and pair ids
    whatever the substrate is.)  So a prepared own template never makes its_list raise StopIteration, on any molecule. *)
Theorem C04_any_match_explicit_h_total : forall (A B : hostg) (tpl rc : its) (l r : molg) (host : hostg)
    (y : C03_Model.mapping) (T : its),
  pair_wf A B -> describes A B tpl -> default_okb A B tpl = true ->
  synrule tpl true = Some (rc, l, r) -> wf_rcb rc = true ->
  match_rcb host rc y = true -> glue host rc y = Some T -> valence_okb tpl rc = true ->
  explicit_h T <> None.
Proof. exact any_match_total. Qed.
Print Assumptions C04_any_match_explicit_h_total.

(** what the search engine returns is a valid match of the RULE: a monomorphism of the translated pattern into the translated
    substrate (C06's specification [is_mono] on [tr_host] / [tr_pat]) passes the reactor's predicates on the rule's reactant side,
    when the pattern is the rule's reactant side in both directions ([left_of], [left_onto]: true for the default-mode
    preparation, [default_left_of] / [default_left_onto], and trivially in implicit mode), the rule's bonds join its own atoms and
    no hydrogen count is negative.  (The converse, a valid match is a monomorphism, is what C04_identity_among_raw uses.) *)
Theorem C04_engine_match_is_rule_match : forall (host : hostg) (rc : its) (l : molg) (y : C03_Model.mapping),
  wf_hostb host = true -> (forall n a, label host n = Some a -> 0 <= a_hc a) ->
  wf_rcb rc = true -> (forall u v x, In (u, v, x) (gedges rc) -> In u (node_ids rc) /\ In v (node_ids rc)) ->
  left_of rc l -> left_onto rc l -> (forall k la, label l k = Some la -> 0 <= m_hc la) ->
  is_mono (tr_host host) (tr_pat l) y ->
  match_rcb host rc y = true.
Proof. exact mono_is_match. Qed.
Print Assumptions C04_engine_match_is_rule_match.

(** PARTIAL only with respect to RDKit and the H2 / H+ re-match path: the default (explicit-hydrogen) mode through the whole
    reactor object for the exhaustive strategy.  Under the hypotheses of C04_identity_glue_default, the static boolean
    [own_valence_okb], C06's VF2 contract for the one enumeration and a threshold that is not exceeded (the pattern counts are
    bond counts, hence not negative: default_pattern_nonneg): a fresh reactor -- engine call, pruning by the rule's automorphisms, _glue_graph on EVERY kept mapping, _explicit_h
    over the whole list (which raises on none of them: every kept mapping is a monomorphism the engine returned, hence a valid
    match of the rule, and C04_any_match_explicit_h_total applies) -- returns an its_list that contains an ITS which
    decomposes to the reaction in implicit-hydrogen normal form.  (C04_in_results_engine_default_partial has [crashed = false]
    as a premise instead.)  With C04_in_results_engine_partial: both branches of the precondition,
    strategy ALL, up to RDKit. *)
Theorem C04_in_results_engine_default : forall (enum : list N -> list N -> list C06_Model.mapping)
    (rematch : nat -> hostg -> molg -> list C03_Model.mapping) (core invert : bool) (G H : hostg) (thr : option N),
  pair_wfb G H = true -> mode_E G H = true ->
  default_okb (if invert then H else G) (if invert then G else H) (template core invert G H) = true ->
  (core = true -> centre_carries (its_construct G H) = true) ->
  own_valence_okb core invert G H = true ->
  forall (rc : its) (l r : molg),
  rule_of core invert G H = Some (rc, l, r) ->
  vf2_contract enum (tr_host (substrate invert G H)) (tr_pat l) (node_ids (tr_host (substrate invert G H))) (node_ids (tr_pat l)) ->
  (lenN (enum (node_ids (tr_host (substrate invert G H))) (node_ids (tr_pat l))) <= dflt DEFAULT_THRESHOLD thr)%N ->
  exists (gs : list its) (T' : its),
    fst (read_its (api_engine enum) rematch (own_opts invert true (SMember 0%N) thr false) (substrate invert G H) (rc, l, r) fresh) = Some gs /\
    In T' gs /\ regen_folded T' (if invert then H else G) (if invert then G else H) = true.
Proof.
  exact (fun enum rematch core invert G H thr W ME OK CC VAL rc l r Er =>
           default_chain_total enum rematch core invert G H thr W ME OK CC VAL rc l r Er (default_pattern_nonneg core invert G H rc l r W ME OK CC Er)).
Qed.
Print Assumptions C04_in_results_engine_default.

(** * with C06's VERIFIED enumerator in the place of VF2 no premise about the enumeration is left

    [monos_on H P] is the enumerator of lib/Mono.v that C06 proves sound, complete and duplicate-free
    (C06_enumerator_meets_contract); the structural side conditions of that theorem follow from the well-formedness of the
    reaction (proof/C04_DefaultChain.v).  These are the instances the correspondence itself runs when it enumerates the raw matches (and
    compares them, as a set, with what the implementation's VF2 returned).  Only the threshold remains as a hypothesis
    (beyond it the engine returns nothing, by design). *)
Theorem C04_in_results_verified_implicit : forall (rematch : nat -> hostg -> molg -> list C03_Model.mapping)
    (ser : nat -> its -> option bytes * option bytes) (core invert : bool) (G H : hostg) (thr : option N),
  pair_wfb G H = true -> no_explicit_H G = true ->
  (core = true -> centre_carries (its_construct G H) = true) ->
  let tpl := template core invert G H in
  let l := dec_side iG C03_Model.eG tpl in
  let host := substrate invert G H in
  let enum := monos_on (tr_host host) (tr_pat (pattern_of l)) in
  forallb (fun p : N * mnode => 0 <=? m_hc (snd p)) (gnodes (pattern_of l)) = true ->
  (lenN (enum (node_ids (tr_host host)) (node_ids (tr_pat (pattern_of l)))) <= dflt DEFAULT_THRESHOLD thr)%N ->
  exists (gs : list its) (T : its),
    fst (read_its (api_engine enum) rematch (own_opts invert false (SMember 0%N) thr false) host
                  (tpl, l, dec_side iH C03_Model.eH tpl) fresh) = Some gs /\
    In T gs /\ regen_exact T (if invert then H else G) (if invert then G else H) = true.
Proof. exact chain_verified_implicit. Qed.
Print Assumptions C04_in_results_verified_implicit.

Theorem C04_in_results_verified_default : forall (rematch : nat -> hostg -> molg -> list C03_Model.mapping)
    (core invert : bool) (G H : hostg) (thr : option N),
  pair_wfb G H = true -> mode_E G H = true ->
  default_okb (if invert then H else G) (if invert then G else H) (template core invert G H) = true ->
  (core = true -> centre_carries (its_construct G H) = true) ->
  own_valence_okb core invert G H = true ->
  forall (rc : its) (l r : molg), rule_of core invert G H = Some (rc, l, r) ->
  let host := substrate invert G H in
  let enum := monos_on (tr_host host) (tr_pat l) in
  (lenN (enum (node_ids (tr_host host)) (node_ids (tr_pat l))) <= dflt DEFAULT_THRESHOLD thr)%N ->
  exists (gs : list its) (T' : its),
    fst (read_its (api_engine enum) rematch (own_opts invert true (SMember 0%N) thr false) host (rc, l, r) fresh) = Some gs /\
    In T' gs /\ regen_folded T' (if invert then H else G) (if invert then G else H) = true.
Proof. exact chain_verified_default. Qed.
Print Assumptions C04_in_results_verified_default.

(** * comp / bt for the own templates at the level of the reactor OBJECT (its_list of a fresh reactor), both hydrogen modes; in the
    default mode to the END of its_list: no kept mapping makes _explicit_h raise (they are monomorphisms by C06's comp_spec /
    bt_spec, hence rule matches, C04_engine_match_is_rule_match + C04_any_match_explicit_h_total), and the stage keeps the folded
    reaction (C04_explicit_h_keeps_reaction).  Same conditions as C04_own_{comp,bt}_{implicit,default}, but for ANY embed_threshold [thr] --
    None = the default 5000 included -- that is not below C06's explicit bound [comp_bound] (the largest intermediate list of the
    component-aware search; for bt also the number of exhaustive matches). *)
Theorem C04_own_comp_implicit_object : forall (enum : list N -> list N -> list C06_Model.mapping) (rematch : nat -> hostg -> molg -> list C03_Model.mapping)
    (core invert : bool) (G H : hostg) (thr : option N),
  pair_wfb G H = true -> no_explicit_H G = true ->
  (core = true -> centre_carries (its_construct G H) = true) ->
  forallb (fun p : N * mnode => 0 <=? m_hc (snd p)) (gnodes (dec_side iG C03_Model.eG (template core invert G H))) = true ->
  oracle_ok enum (tr_host (if invert then H else G)) (tr_pat (dec_side iG C03_Model.eG (template core invert G H))) ->
  (0 <? length (comps (tr_pat (dec_side iG C03_Model.eG (template core invert G H)))))%nat && (length (comps (tr_pat (dec_side iG C03_Model.eG (template core invert G H)))) <? length (comps (tr_host (if invert then H else G))))%nat = false ->
  ((length (comps (tr_host (if invert then H else G))) <? length (comps (tr_pat (dec_side iG C03_Model.eG (template core invert G H)))))%nat = true \/ id_separatingb (tr_host (if invert then H else G)) (tr_pat (dec_side iG C03_Model.eG (template core invert G H))) = true) ->
  (comp_bound enum true (tr_host (if invert then H else G)) (tr_pat (dec_side iG C03_Model.eG (template core invert G H))) <= dflt DEFAULT_THRESHOLD thr)%N ->
  exists (gs : list its) (Tt : its),
    fst (read_its (api_engine enum) rematch (own_opts invert false (SMember 1%N) thr false) (if invert then H else G)
                  (template core invert G H, dec_side iG C03_Model.eG (template core invert G H), dec_side iH C03_Model.eH (template core invert G H)) fresh) = Some gs /\
    In Tt gs /\ regen_exact Tt (if invert then H else G) (if invert then G else H) = true.
Proof. exact own_comp_implicit_at. Qed.
Print Assumptions C04_own_comp_implicit_object.

Theorem C04_own_bt_implicit_object : forall (enum : list N -> list N -> list C06_Model.mapping) (rematch : nat -> hostg -> molg -> list C03_Model.mapping)
    (core invert : bool) (G H : hostg) (thr : option N),
  pair_wfb G H = true -> no_explicit_H G = true ->
  (core = true -> centre_carries (its_construct G H) = true) ->
  forallb (fun p : N * mnode => 0 <=? m_hc (snd p)) (gnodes (dec_side iG C03_Model.eG (template core invert G H))) = true ->
  oracle_ok enum (tr_host (if invert then H else G)) (tr_pat (dec_side iG C03_Model.eG (template core invert G H))) ->
  ((0 <? length (comps (tr_pat (dec_side iG C03_Model.eG (template core invert G H)))))%nat && (length (comps (tr_pat (dec_side iG C03_Model.eG (template core invert G H)))) <? length (comps (tr_host (if invert then H else G))))%nat = true \/ (length (comps (tr_host (if invert then H else G))) <? length (comps (tr_pat (dec_side iG C03_Model.eG (template core invert G H)))))%nat = true \/ id_separatingb (tr_host (if invert then H else G)) (tr_pat (dec_side iG C03_Model.eG (template core invert G H))) = true) ->
  (N.max (comp_bound enum true (tr_host (if invert then H else G)) (tr_pat (dec_side iG C03_Model.eG (template core invert G H)))) (lenN (enum (node_ids (tr_host (if invert then H else G))) (node_ids (tr_pat (dec_side iG C03_Model.eG (template core invert G H)))))) <= dflt DEFAULT_THRESHOLD thr)%N ->
  exists (gs : list its) (Tt : its),
    fst (read_its (api_engine enum) rematch (own_opts invert false (SMember 2%N) thr false) (if invert then H else G)
                  (template core invert G H, dec_side iG C03_Model.eG (template core invert G H), dec_side iH C03_Model.eH (template core invert G H)) fresh) = Some gs /\
    In Tt gs /\ regen_exact Tt (if invert then H else G) (if invert then G else H) = true.
Proof. exact own_bt_implicit_at. Qed.
Print Assumptions C04_own_bt_implicit_object.

Theorem C04_own_comp_default_object : forall (enum : list N -> list N -> list C06_Model.mapping) (rematch : nat -> hostg -> molg -> list C03_Model.mapping)
    (core invert : bool) (G H : hostg) (thr : option N),
  pair_wfb G H = true -> mode_E G H = true ->
  default_okb (if invert then H else G) (if invert then G else H) (template core invert G H) = true ->
  (core = true -> centre_carries (its_construct G H) = true) ->
  own_valence_okb core invert G H = true ->
  forall (rc : its) (l r : molg), rule_of core invert G H = Some (rc, l, r) ->
  oracle_ok enum (tr_host (substrate invert G H)) (tr_pat l) ->
  (0 <? length (comps (tr_pat l)))%nat && (length (comps (tr_pat l)) <? length (comps (tr_host (substrate invert G H))))%nat = false ->
  ((length (comps (tr_host (substrate invert G H))) <? length (comps (tr_pat l)))%nat = true \/ id_separatingb (tr_host (substrate invert G H)) (tr_pat l) = true) ->
  (comp_bound enum true (tr_host (substrate invert G H)) (tr_pat l) <= dflt DEFAULT_THRESHOLD thr)%N ->
  exists (gs : list its) (T' : its),
    fst (read_its (api_engine enum) rematch (own_opts invert true (SMember 1%N) thr false) (substrate invert G H) (rc, l, r) fresh) = Some gs /\
    In T' gs /\ regen_folded T' (if invert then H else G) (if invert then G else H) = true.
Proof. exact own_comp_default_at. Qed.
Print Assumptions C04_own_comp_default_object.

Theorem C04_own_bt_default_object : forall (enum : list N -> list N -> list C06_Model.mapping) (rematch : nat -> hostg -> molg -> list C03_Model.mapping)
    (core invert : bool) (G H : hostg) (thr : option N),
  pair_wfb G H = true -> mode_E G H = true ->
  default_okb (if invert then H else G) (if invert then G else H) (template core invert G H) = true ->
  (core = true -> centre_carries (its_construct G H) = true) ->
  own_valence_okb core invert G H = true ->
  forall (rc : its) (l r : molg), rule_of core invert G H = Some (rc, l, r) ->
  oracle_ok enum (tr_host (substrate invert G H)) (tr_pat l) ->
  ((0 <? length (comps (tr_pat l)))%nat && (length (comps (tr_pat l)) <? length (comps (tr_host (substrate invert G H))))%nat = true \/ (length (comps (tr_host (substrate invert G H))) <? length (comps (tr_pat l)))%nat = true \/ id_separatingb (tr_host (substrate invert G H)) (tr_pat l) = true) ->
  (N.max (comp_bound enum true (tr_host (substrate invert G H)) (tr_pat l)) (lenN (enum (node_ids (tr_host (substrate invert G H))) (node_ids (tr_pat l)))) <= dflt DEFAULT_THRESHOLD thr)%N ->
  exists (gs : list its) (T' : its),
    fst (read_its (api_engine enum) rematch (own_opts invert true (SMember 2%N) thr false) (substrate invert G H) (rc, l, r) fresh) = Some gs /\
    In T' gs /\ regen_folded T' (if invert then H else G) (if invert then G else H) = true.
Proof. exact own_bt_default_at. Qed.
Print Assumptions C04_own_bt_default_object.

(** * strategy comp in the strict_cc_count guard region: REFUTED (known findings *:comp:guard)

    find_subgraph_mappings(strategy=comp) with strict_cc_count at its default returns NO match when the substrate has more
    connected components than the pattern (C06: the documented guard of that parameter).  With a centre template and a
    spectator molecule or ion this is the case for the reaction's own reactants: the identity is a valid match, the exhaustive
    strategy and bt (which falls back to it) regenerate the reaction, comp returns an empty its_list.  Witness: CH3Br + OH- ->
    CH3OH + Br- next to a spectator water, centre template, forwards; verified enumerator as VF2.  Not repaired (the behaviour is
    the documented parameter; the reactor does not expose strict_cc_count); the oracle emits the key *:comp:guard exactly when
    the strategy is comp, 0 < pcc < hcc and nothing was returned (5 keys: usp#51, hand:spectator-water centre both directions,
    hand:intra-spectator centre backwards). *)
Theorem C04_comp_guard_refuted : exists (G H : hostg) (rule : triple),
  pair_wfb G H = true /\ no_explicit_H G = true /\ consistent_H (its_construct G H) = true /\
  centre_carries (its_construct G H) = true /\ rule_of true false G H = Some rule /\
  let host := substrate false G H in
  let pat := pattern_of (snd (fst rule)) in
  let enum := monos_on (tr_host host) (tr_pat pat) in
  let its_under (s : sarg) := fst (read_its (api_engine enum) no_rematch (own_opts false false s None false) host rule fresh) in
  match_okb host pat (id_map (node_ids pat)) = true /\
  (length (comps (tr_pat pat)) < length (comps (tr_host host)))%nat /\
  its_under (SStr [99; 111; 109; 112]%N) = Some [] /\
  (exists T, its_under (SMember 0%N) = Some [T] /\ regen_exact T G H = true) /\
  (exists T, its_under (SStr [98; 116]%N) = Some [T] /\ regen_exact T G H = true).
Proof. exact comp_guard_refuted. Qed.
Print Assumptions C04_comp_guard_refuted.

(** * the _explicit_h stage in EVERY visiting order

    The code iterates over a Python set when it pairs donors with recipients inside a hydrogen-transfer group; the executable
    model [explicit_h] (and with it [regenerate], [explicit_all], [read_its]) visits them in sorted order.  C03's
    [explicit_h_ord ord] is the same function with ANY duplicate-free listing [ord] of a group.  The two facts the default-mode
    theorems of this file rest on hold for every such order: the stage keeps the folded reaction, and it does not raise (a
    balanced pairing graph is balanced in any order: C03_explicitH_ord_crash_iff).  WHICH hydrogen goes to which recipient may
    differ between orders (C03: ex_ord_changes_wiring); the decomposition in implicit-hydrogen normal form does not. *)
Theorem C04_explicit_h_any_order_keeps_reaction : forall (ord : list N -> list N) (T T' : its) (ms : list (N * N)) (A B : hostg),
  (forall l x, In x (ord l) <-> In x l) -> (forall l, NoDup l -> NoDup (ord l)) ->
  wf_hostb A = true -> wf_hostb B = true -> foldable A -> foldable B -> closed A -> closed B ->
  NoDup (node_ids T) ->
  regen_exact T (h_to_implicit_host A) (h_to_implicit_host B) = true ->
  explicit_h_ord ord T = Some (T', ms) ->
  regen_folded T' A B = true.
Proof. exact explicit_end_ord. Qed.
Print Assumptions C04_explicit_h_any_order_keeps_reaction.

Theorem C04_any_match_explicit_h_total_any_order : forall (A B : hostg) (tpl rc : its) (l r : molg) (host : hostg)
    (y : C03_Model.mapping) (T : its),
  pair_wf A B -> describes A B tpl -> default_okb A B tpl = true ->
  synrule tpl true = Some (rc, l, r) -> wf_rcb rc = true ->
  match_rcb host rc y = true -> glue host rc y = Some T -> valence_okb tpl rc = true ->
  forall ord : list N -> list N,
  (forall l0 x, In x (ord l0) <-> In x l0) -> (forall l0, NoDup l0 -> NoDup (ord l0)) ->
  explicit_h_ord ord T <> None.
Proof. exact any_match_total_ord. Qed.
Print Assumptions C04_any_match_explicit_h_total_any_order.

(** * comp / bt for any rule with an EXPLICIT threshold bound (closes the "from some T0 on" of C04_{comp,bt}_regenerates_partial): for
    any options [o] with that strategy and no pre-filter whose effective threshold [dflt DEFAULT_THRESHOLD (o_thr o)] is not below
    C06's [comp_bound] (for bt: nor below the number of exhaustive matches); also exported: every kept mapping is a monomorphism *)
Theorem C04_comp_regenerates_at : forall (enum : list N -> list N -> list C06_Model.mapping)
    (A B : hostg) (rc : its) (l r : molg),
  pair_wf A B -> describes A B rc -> left_of rc l -> has_XH l = false ->
  forallb (fun p : N * mnode => 0 <=? m_hc (snd p)) (gnodes l) = true ->
  gwf (tr_host A) -> gwf (tr_pat l) -> oracle_ok enum (tr_host A) (tr_pat l) ->
  forall o : ropts,
  (0 <? length (comps (tr_pat l)))%nat && (length (comps (tr_pat l)) <? length (comps (tr_host A)))%nat = false ->
  ((length (comps (tr_host A)) <? length (comps (tr_pat l)))%nat = true \/
   separating (tr_host A) (tr_pat l) (id_map (node_ids l))) ->
  o_strategy o = SMember 1%N -> o_pref o = false ->
  (comp_bound enum true (tr_host A) (tr_pat l) <= dflt DEFAULT_THRESHOLD (o_thr o))%N ->
  exists (ms : list C03_Model.mapping) (y : C03_Model.mapping) (T' : its),
    compute_mappings (api_engine enum) o A (rc, l, r) = Some ms /\
    (forall m, In m ms -> is_mono (tr_host A) (tr_pat l) m) /\ In y ms /\
    glue A rc y = Some T' /\ regen_exact T' A B = true.
Proof. exact comp_regenerates_at. Qed.
Print Assumptions C04_comp_regenerates_at.

Theorem C04_bt_regenerates_at : forall (enum : list N -> list N -> list C06_Model.mapping)
    (A B : hostg) (rc : its) (l r : molg),
  pair_wf A B -> describes A B rc -> left_of rc l -> has_XH l = false ->
  forallb (fun p : N * mnode => 0 <=? m_hc (snd p)) (gnodes l) = true ->
  gwf (tr_host A) -> gwf (tr_pat l) -> oracle_ok enum (tr_host A) (tr_pat l) ->
  forall o : ropts,
  ((0 <? length (comps (tr_pat l)))%nat && (length (comps (tr_pat l)) <? length (comps (tr_host A)))%nat = true \/
   (length (comps (tr_host A)) <? length (comps (tr_pat l)))%nat = true \/
   separating (tr_host A) (tr_pat l) (id_map (node_ids l))) ->
  o_strategy o = SMember 2%N -> o_pref o = false ->
  (N.max (comp_bound enum true (tr_host A) (tr_pat l)) (lenN (enum (node_ids (tr_host A)) (node_ids (tr_pat l)))) <= dflt DEFAULT_THRESHOLD (o_thr o))%N ->
  exists (ms : list C03_Model.mapping) (y : C03_Model.mapping) (T' : its),
    compute_mappings (api_engine enum) o A (rc, l, r) = Some ms /\
    (forall m, In m ms -> is_mono (tr_host A) (tr_pat l) m) /\ In y ms /\
    glue A rc y = Some T' /\ regen_exact T' A B = true.
Proof. exact bt_regenerates_at. Qed.
Print Assumptions C04_bt_regenerates_at.
