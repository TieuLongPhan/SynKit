(** C06 — subgraph search returns exactly the label-preserving monomorphisms.
    Statements only; every proof cites or assembles lemmas of proof/C06_*.v.

    Vocabulary (lib/C06_Spec.v, definitions only, written out in section 0 below):
    [is_mono_on] / [is_mono], [gconn], [separating], [vf2_contract], [oracle_ok],
    [limit], [gwf].  Model: model/C06_Model.v; [find enum c H P] is the public entry
    point [SubgraphSearchEngine.find_subgraph_mappings] (what the correspondence
    evaluates, on the projections of the caller's graphs, through [run_tr_set] /
    [run_tr_list], section 6); [Cfg strategy max_results threshold
    strict_cc_count pre_filter] with strategy 0 = all, 1 = comp, 2 = bt and
    max_results 0 = None.

    networkx VF2 is not modelled: it is the parameter [enum].  Wherever a theorem
    needs it, the premise [vf2_contract] / [oracle_ok] says "this enumeration call
    returns a duplicate-free listing of exactly the valid monomorphisms" (mappings
    compared as sets of pairs, as Python dicts are).  The harness monitors that
    premise on every order-sensitive case ([table_ok2], [C06_run_list_premises]), and
    section 1 shows that the verified enumerator of lib/Mono.v satisfies it, so with
    [enum := monos_on H P] (the order-insensitive runs) no premise about VF2 is left.

    "Without modifying its inputs": the model is a pure function, so this clause
    holds in the model by construction; for the Python code the adapter
    deep-compares host and pattern before/after every call (TESTED_NOT_PROVED). *)
From Coq Require Import List NArith Bool Arith Permutation SetoidList Relations.
From SK Require Import lib.LGraph lib.Mono model.C06_Model lib.C06_Spec
  proof.C06_All proof.C06_Comp proof.C06_Comps proof.C06_CompSem proof.C06_CompNoDup proof.C06_Prefilter proof.C06_Table proof.C06_Api proof.C06_Main
  model.C06_Attrs lib.C06_SelSpec proof.C06_Attrs proof.C06_AttrsSpec proof.C06_AttrsEx
  model.C06_Trace proof.C06_Trace proof.C06_TraceEx proof.C06_AttrsComp model.C06_Hist proof.C06_Hist lib.C06_TraceSpec proof.C06_TracePer proof.C06_HistEdits proof.C06_Iso proof.C06_IsoCount proof.C06_AttrsUnused lib.C06_HistSpec proof.C06_HistFrame proof.C06_TraceCover proof.C06_HistFrameE proof.C06_Degenerate proof.C06_AttrsHcount proof.C06_Refuted.
Import ListNotations.

(** ** 0. What the specification predicates say, written out *)
Theorem C06_spec_meaning : forall (H P : graph) (hn pn : list N) (m : mapping),
  is_mono_on H P hn pn m <->
  (* a function defined exactly on the pattern nodes *)
  NoDup (map fst m) /\ (forall p, In p (map fst m) <-> In p pn) /\
  (* injective *)
  NoDup (map snd m) /\
  (* into the host nodes; selected node attributes equal, host hcount >= pattern hcount *)
  (forall p h, In (p, h) m ->
     In h hn /\ fst (lab H h) = fst (lab P p) /\ (snd (lab P p) <= snd (lab H h))%N) /\
  (* every pattern edge lands on a host edge with equal selected edge attributes *)
  (forall p h p' h' b, In (p, h) m -> In (p', h') m -> LGraph.adj P p p' = Some b ->
     LGraph.adj H h h' = Some b).
Proof. exact is_mono_on_meaning. Qed.
Print Assumptions C06_spec_meaning.

(** [comps] (the model of nx.connected_components) lists exactly the connectivity
    classes ([gconn] = reflexive-transitive closure of adjacency): "component" in the
    theorems below means what it should *)
Theorem C06_components : forall g : graph, gwf g ->
  (forall c, In c (comps g) ->
     c <> [] /\ NoDup c /\ incl c (node_ids g) /\
     forall x y, In x c -> (In y c <-> clos_refl_trans N (fun a b => LGraph.adj g a b <> None) x y)) /\
  (forall x, In x (node_ids g) -> exists c, In c (comps g) /\ In x c) /\
  (forall i j ci cj x, nth_error (comps g) i = Some ci -> nth_error (comps g) j = Some cj ->
     In x ci -> In x cj -> i = j).
Proof. exact (fun g Hg => conj (comps_class g Hg) (conj (comps_cover g Hg) (comps_disjoint g Hg))). Qed.
Print Assumptions C06_components.

(** ** 1. Exhaustive strategy *)
(** no limits (max_results None, threshold not below the number of matches): the result
    is sound, complete and duplicate-free, under the VF2 contract for the one enumeration
    call the strategy makes *)
Theorem C06_all_exact : forall (enum : list N -> list N -> list mapping) (T : N) (strict : bool) (H P : graph),
  vf2_contract enum H P (node_ids H) (node_ids P) ->
  (lenN (enum (node_ids H) (node_ids P)) <= T)%N ->
  let R := find enum (Cfg 0 0 T strict false) H P in
  (forall m, In m R -> is_mono H P m) /\
  (forall m, is_mono H P m -> exists m', In m' R /\ Permutation m m') /\
  NoDupA (@Permutation (N * N)) R.
Proof. exact all_exact. Qed.
Print Assumptions C06_all_exact.

(** the contract is satisfiable, and the enumerator the harness monitors VF2 against meets it *)
Theorem C06_enumerator_meets_contract : forall (H P : graph), gwf P ->
  forall hn pn, NoDup hn -> NoDup pn ->
  (forall m, In m (monos_on H P hn pn) -> is_mono_on H P hn pn m) /\
  (forall m, is_mono_on H P hn pn m -> exists m', In m' (monos_on H P hn pn) /\ Permutation m m') /\
  NoDupA (@Permutation (N * N)) (monos_on H P hn pn).
Proof. exact monos_on_contract. Qed.
Print Assumptions C06_enumerator_meets_contract.

Theorem C06_enumerator_oracle_ok : forall (H P : graph), gwf H -> gwf P -> oracle_ok (monos_on H P) H P.
Proof. exact monos_on_oracle_ok. Qed.
Print Assumptions C06_enumerator_oracle_ok.

(** the premise of section 2, written out: the whole-graph call and every call "pattern
    component into a host component that is large enough" return a duplicate-free listing
    of exactly the valid monomorphisms *)
Theorem C06_oracle_ok_meaning : forall (enum : list N -> list N -> list mapping) (H P : graph),
  oracle_ok enum H P <->
  (let L := enum (node_ids H) (node_ids P) in
   (forall m, In m L -> is_mono H P m) /\
   (forall m, is_mono H P m -> exists m', In m' L /\ Permutation m m') /\
   NoDupA (@Permutation (N * N)) L) /\
  (forall hc pc, In hc (comps H) -> In pc (comps P) -> length pc <= length hc ->
   let L := enum hc pc in
   (forall m, In m L -> is_mono_on H P hc pc m) /\
   (forall m, is_mono_on H P hc pc m -> exists m', In m' L /\ Permutation m m') /\
   NoDupA (@Permutation (N * N)) L).
Proof. exact oracle_ok_meaning. Qed.
Print Assumptions C06_oracle_ok_meaning.

(** the monitor implies the premise: for an order-sensitive case the model evaluates
    [find (lookup_or t H P)] (the recorded networkx enumeration of every call; the verified
    enumerator for a call that was never recorded) and the two flags [wfb H && wfb P] and
    [table_ok2 H P t] (every recorded enumeration is, entry by entry and as sets of pairs,
    a rearrangement of the verified enumerator's list).  When both flags are true - the
    harness compares them with the constant true on every such case - all premises of the
    theorems of this file hold for that oracle: nothing about networkx is assumed for the
    cases that were run. *)
Theorem C06_run_list_premises : forall (H P : graph) (t : table),
  wfb H && wfb P = true -> table_ok2 H P t = true ->
  gwf H /\ gwf P /\ LGraph.wf P /\ oracle_ok (lookup_or t H P) H P.
Proof. exact run_list_premises. Qed.
Print Assumptions C06_run_list_premises.

(** ** 2. Component-aware strategy, no limits (for every threshold from some T0 on).
    What the code does, in this order:
    - pattern has components, host has MORE components and strict_cc_count is set: [] (the
      documented guard of that parameter; the property text does not mention it — the
      text's claim is the third case, which is what strict_cc_count = False gives);
    - host has FEWER components than the pattern: exactly all monomorphisms;
    - otherwise: exactly the monomorphisms that send different pattern components into
      different host components ([separating]: two images connected in the host only if
      the two pattern nodes are connected in the pattern). *)
Theorem C06_comp_spec : forall (enum : list N -> list N -> list mapping) (strict : bool) (H P : graph),
  gwf H -> gwf P -> oracle_ok enum H P ->
  exists T0 : N, forall T : N, (T0 <= T)%N ->
  let R := find enum (Cfg 1 0 T strict false) H P in
  let hcc := length (comps H) in
  let pcc := length (comps P) in
  (* no two entries are equal as sets of pairs *)
  NoDupA (@Permutation (N * N)) R /\
  if (0 <? pcc) && (pcc <? hcc) && strict then R = []
  else if hcc <? pcc then
    (forall m, In m R -> is_mono H P m) /\
    (forall m, is_mono H P m -> exists m', In m' R /\ Permutation m m')
  else
    (forall m, In m R ->
       is_mono H P m /\
       forall p h p' h', In (p, h) m -> In (p', h') m -> gconn H h h' -> gconn P p p') /\
    (forall m, is_mono H P m ->
       (forall p h p' h', In (p, h) m -> In (p', h') m -> gconn H h h' -> gconn P p p') ->
       exists m', In m' R /\ Permutation m m').
Proof. exact comp_spec. Qed.
Print Assumptions C06_comp_spec.

(** ** 3. Fallback strategy, no limits: the component-aware result if it is non-empty,
    the exhaustive result otherwise (no premise: this is about the dispatch only; what
    the two results are is sections 1 and 2) *)
Theorem C06_bt_spec : forall (enum : list N -> list N -> list mapping) (strict : bool) (H P : graph),
  exists T0 : N, forall T : N, (T0 <= T)%N ->
  find enum (Cfg 2 0 T strict false) H P =
  match find enum (Cfg 1 0 T strict false) H P with
  | [] => find enum (Cfg 0 0 T strict false) H P
  | primary => primary
  end.
Proof. exact bt_spec_unlimited. Qed.
Print Assumptions C06_bt_spec.

(** the instance the default configuration meets on mixtures (strict_cc_count = True, the
    pattern has fewer components than the host, e.g. a connected pattern in a host of
    several molecules): comp is [] by the documented parameter, hence bt is the exhaustive
    result, i.e. exactly the monomorphisms *)
Theorem C06_bt_strict_fallback : forall (enum : list N -> list N -> list mapping) (H P : graph),
  vf2_contract enum H P (node_ids H) (node_ids P) ->
  0 < length (comps P) -> length (comps P) < length (comps H) ->
  exists T0 : N, forall T : N, (T0 <= T)%N ->
  let R := find enum (Cfg 2 0 T true false) H P in
  find enum (Cfg 1 0 T true false) H P = [] /\
  R = find enum (Cfg 0 0 T true false) H P /\
  (forall m, In m R -> is_mono H P m) /\
  (forall m, is_mono H P m -> exists m', In m' R /\ Permutation m m') /\
  NoDupA (@Permutation (N * N)) R.
Proof. exact bt_strict_fallback. Qed.
Print Assumptions C06_bt_strict_fallback.

(** ** 4. Result limits *)
(** exhaustive strategy, every max_results and threshold: the prefix of length
    min(max_results, #matches) of the unlimited listing, or [] when that length exceeds
    the threshold — nothing else *)
Theorem C06_limits_all : forall (enum : list N -> list N -> list mapping) (maxr thr : N) (strict : bool) (H P : graph),
  find enum (Cfg 0 maxr thr strict false) H P =
  let U := enum (node_ids H) (node_ids P) in
  let k := if (maxr =? 0)%N then lenN U else N.min maxr (lenN U) in
  if (thr <? k)%N then [] else firstn (N.to_nat k) U.
Proof. exact find_all_limits. Qed.
Print Assumptions C06_limits_all.

(** every strategy (no premise about VF2: the order of the list is whatever the oracle's
    order induces).  U = the result without limits.  Either the result is exactly
    [limit max_results threshold U] (prefix of length min, emptied past the threshold), or —
    component-aware / fallback only — the documented enumeration guard fired: some pattern
    component has more than threshold embeddings into the large-enough host components;
    then comp returns [] and bt returns either [] or the limited exhaustive result. *)
Theorem C06_limits : forall (enum : list N -> list N -> list mapping) (strat : N) (strict : bool) (H P : graph),
  exists T0 : N, forall T : N, (T0 <= T)%N ->
  let U := find enum (Cfg strat 0 T strict false) H P in
  let Uall := find enum (Cfg 0 0 T strict false) H P in
  forall maxr thr : N,
  let R := find enum (Cfg strat maxr thr strict false) H P in
  let k := fun V : list mapping => if (maxr =? 0)%N then lenN V else N.min maxr (lenN V) in
  let lim := fun V : list mapping => if (thr <? k V)%N then [] else firstn (N.to_nat (k V)) V in
  R = lim U \/
  (strat <> 0%N /\
   (exists pc, In pc (comps P) /\
      N.lt thr (lenN (flat_map (fun ih => map (pair (fst ih)) (enum (snd ih) pc))
                        (filter (fun ih => length pc <=? length (snd ih)) (index_from 0 (comps H)))))) /\
   (R = [] \/ R = lim Uall)).
Proof. exact limits. Qed.
Print Assumptions C06_limits.

(** the second alternative is real: threshold 3, unlimited component-aware result of
    exactly 3 mappings (not past the threshold), yet [] is returned because pattern
    component {C10} has 4 embeddings (host C1-C2-C3 . C4-O5, pattern C10 . O11).  This is
    the docstring's "enumeration guard"; the harness oracle accepts it (ASSUMPTIONS). *)
Theorem C06_limits_guard_reachable :
  find (monos_on Hx Px) (Cfg 1 0 3 true false) Hx Px = [] /\
  limit 0 3 (find (monos_on Hx Px) (Cfg 1 0 5000 true false) Hx Px) =
    find (monos_on Hx Px) (Cfg 1 0 5000 true false) Hx Px /\
  length (find (monos_on Hx Px) (Cfg 1 0 5000 true false) Hx Px) = 3 /\
  find (monos_on Hx Px) (Cfg 2 0 3 true false) Hx Px = [].
Proof. exact guard_reachable. Qed.
Print Assumptions C06_limits_guard_reachable.

(** the cheap pre-filter can only empty the result, never change it otherwise *)
Theorem C06_prefilter_only_empties : forall (enum : list N -> list N -> list mapping) (c : cfg) (H P : graph),
  find enum c H P = [] \/
  find enum c H P = find enum (Cfg (c_strat c) (c_maxr c) (c_thr c) (c_strict c) false) H P.
Proof. exact prefilter_only_empties. Qed.
Print Assumptions C06_prefilter_only_empties.

(** when the pre-filter says "skip" ([_quick_pre_filter] returns True), either there is
    provably no monomorphism at all (so the emptied result is the exact one), or the
    documented estimate guard fired: the product of the per-node candidate counts (host
    nodes with matching labels and at least the pattern node's degree) over a prefix of
    the pattern nodes exceeds 10^4 x threshold *)
Theorem C06_prefilter_sound : forall (H P : graph) (thr : N),
  LGraph.wf P -> quick_pre_filter H P thr = true ->
  (forall m, ~ is_mono H P m) \/
  (exists pre suf, node_ids P = pre ++ suf /\
     (thr * 10000 <
      fold_left (fun e p => e * lenN (filter (fun h => nm (lab H h) (lab P p) && (degree P p <=? degree H h)) (node_ids H)))
                pre 1)%N).
Proof. exact prefilter_sound. Qed.
Print Assumptions C06_prefilter_sound.

(** the first flag of every compared observable is [wfb H && wfb P]; it implies the input
    premises ([gwf], [LGraph.wf]) of the theorems above *)
Theorem C06_input_premise_monitor : forall g : graph, wfb g = true -> LGraph.wf g /\ gwf g.
Proof. exact wfb_spec. Qed.
Print Assumptions C06_input_premise_monitor.

(** ** 5. The call interface (Strategy.from_string and the option defaults; [find_api] is what
    [run_sel_api] evaluates on the "api" population, where the harness hands over exactly what the
    caller wrote - omitted options included) *)

(** accepted strategy spellings: exactly the case variants of "all" / "comp" / "bt" / "partial"
    (byte strings; A-Z folded to a-z); everything else is a ValueError *)
Theorem C06_from_string : forall (s : list N) (k : N),
  from_string s = Some k <->
  (k = 0%N /\ map lower_byte s = [97; 108; 108]%N) \/
  (k = 1%N /\ map lower_byte s = [99; 111; 109; 112]%N) \/
  (k = 2%N /\ map lower_byte s = [98; 116]%N) \/
  (k = 3%N /\ map lower_byte s = [112; 97; 114; 116; 105; 97; 108]%N).
Proof. exact from_string_spec. Qed.
Print Assumptions C06_from_string.

(** every option omitted = comp, no cap, strict component count, threshold 5000, no pre-filter;
    a string behaves as the member it denotes; "partial" is refused; max_results = 0 is None *)
Theorem C06_api : forall (enum : list N -> list N -> list mapping) (H P : graph),
  find_api enum SDefault None None None None H P = Result (find enum (Cfg 1 0 5000 true false) H P) /\
  (forall s maxr strict thr pref,
     find_api enum (SStr s) maxr strict thr pref H P =
     match from_string s with
     | None => ValueError
     | Some k => find_api enum (SMember k) maxr strict thr pref H P
     end) /\
  (forall k maxr strict thr pref, (k < 3)%N ->
     find_api enum (SMember k) maxr strict thr pref H P =
     Result (find enum (Cfg k (match maxr with Some m => m | None => 0%N end)
                              (match thr with Some t => t | None => 5000%N end)
                              (match strict with Some b => b | None => true end)
                              (match pref with Some b => b | None => false end)) H P)) /\
  (forall maxr strict thr pref, find_api enum (SMember 3) maxr strict thr pref H P = NotImplemented) /\
  (forall s strict thr pref,
     find_api enum s (Some 0%N) strict thr pref H P = find_api enum s None strict thr pref H P).
Proof.
  exact (fun enum H P => conj (api_defaults enum H P) (conj (fun s m st t p => api_strategy enum s m st t p H P)
          (conj (fun k m st t p => api_member enum k m st t p H P) (conj (fun m st t p => api_partial enum m st t p H P)
          (fun s st t p => api_maxr_zero enum s st t p H P))))).
Qed.
Print Assumptions C06_api.

(** the call with EVERY option omitted (strategy comp, strict_cc_count True, threshold 5000),
    when 5000 is not binding (raising the threshold further does not change the result):
    [] as soon as the host has more components than a non-empty pattern (the default the
    mixtures meet!), all monomorphisms when it has fewer, the separating ones otherwise *)
Theorem C06_default_call : forall (enum : list N -> list N -> list mapping) (H P : graph),
  gwf H -> gwf P -> oracle_ok enum H P ->
  (forall T', (5000 <= T')%N ->
     find enum (Cfg 1 0 T' true false) H P = find enum (Cfg 1 0 5000 true false) H P) ->
  exists R, find_api enum SDefault None None None None H P = Result R /\
  let hcc := length (comps H) in
  let pcc := length (comps P) in
  NoDupA (@Permutation (N * N)) R /\
  if (0 <? pcc) && (pcc <? hcc) then R = []
  else if hcc <? pcc then
    (forall m, In m R -> is_mono H P m) /\
    (forall m, is_mono H P m -> exists m', In m' R /\ Permutation m m')
  else
    (forall m, In m R -> is_mono H P m /\ separating H P m) /\
    (forall m, is_mono H P m -> separating H P m -> exists m', In m' R /\ Permutation m m').
Proof. exact default_call_spec. Qed.
Print Assumptions C06_default_call.

(** ** 6. Attribute dictionaries and selections (model/C06_Attrs.v).  The
    correspondence hands the model the graphs as the caller has them - every node / edge with its
    whole attribute dictionary - and the selections node_attrs / edge_attrs as lists of names;
    [run_tr_set] / [run_tr_list] (model/C06_Trace.v) / [run_sel_api] evaluate [find_sel], [quick_pre_filter_sel] and the
    enumerator [monos_sel] run with the two closures of subgraph_matcher.py ([node_match_sel],
    [edge_match_sel]).  [aget k d] is [d.get(k)] (None = 0), [hc l] is [l.get("hcount", 0)]. *)

(** the closures, written out *)
Theorem C06_sel_closures : forall (na ea : list N) (nh np : rnlab) (eh ep : rattrs),
  (node_match_sel na nh np = true <->
     (forall k, In k na -> aget k (fst nh) = aget k (fst np)) /\ (hc np <= hc nh)%N) /\
  (edge_match_sel ea eh ep = true <-> forall k, In k ea -> aget k eh = aget k ep).
Proof. exact (fun na ea nh np eh ep => conj (node_match_sel_meaning na nh np) (edge_match_sel_meaning ea eh ep)). Qed.
Print Assumptions C06_sel_closures.

(** the bridge to sections 0-5: the closures are the comparators [nm] / [em] of the projected
    graphs; on node lists of the two graphs the enumeration with the closures IS the verified
    enumerator on the projections; what the correspondence evaluates is [find] on the projections
    with that enumerator (so every theorem above about [find (monos_on H P) c H P] is a theorem
    about the evaluated term), and the pre-filter verdicts coincide *)
Theorem C06_sel_projection : forall (na ea : list N) (H P : rgraph),
  (forall nh np, node_match_sel na nh np = nm (proj_n na nh) (proj_n na np)) /\
  (forall eh ep, edge_match_sel ea eh ep = em (proj_e ea eh) (proj_e ea ep)) /\
  (forall hn pn, incl hn (node_ids H) -> incl pn (node_ids P) ->
     monos_on (project na ea H) (project na ea P) hn pn = monos_sel na ea H P hn pn) /\
  (forall c, find_sel (monos_sel na ea H P) c na ea H P =
             find (monos_on (project na ea H) (project na ea P)) c (project na ea H) (project na ea P)) /\
  (forall thr, quick_pre_filter_sel na H P thr = quick_pre_filter (project na ea H) (project na ea P) thr).
Proof.
  exact (fun na ea H P => conj (node_match_sel_proj na) (conj (edge_match_sel_proj ea)
           (conj (monos_sel_project na ea H P) (conj (fun c => find_sel_project c na ea H P)
                 (quick_pre_filter_sel_project na ea H P))))).
Qed.
Print Assumptions C06_sel_projection.

(** [find] asks its enumeration oracle only for sub-lists of the node lists of the two graphs
    (whole graph x whole graph, component x component): two oracles that agree there give the
    same result for every configuration *)
Theorem C06_enum_calls_inside : forall (e1 e2 : list N -> list N -> list mapping) (H P : graph),
  (forall hn pn, incl hn (node_ids H) -> incl pn (node_ids P) -> e1 hn pn = e2 hn pn) ->
  forall c, find e1 c H P = find e2 c H P.
Proof. exact find_enum_ext. Qed.
Print Assumptions C06_enum_calls_inside.

(** the first sentence of the property, on the caller's graphs (no projection in the statement):
    the exhaustive strategy without limits returns exactly the injective maps under which every
    SELECTED node attribute name has equal values in the two dictionaries, the host hcount is at
    least the pattern's, and every pattern bond lands on a host bond whose dictionary agrees on
    every SELECTED edge attribute name - sound, complete, duplicate-free *)
Theorem C06_sel_all_exact : forall (na ea : list N) (T : N) (strict : bool) (H P : rgraph),
  (NoDup (node_ids H) /\ forall a b x, In (a, b, x) (gedges H) -> In a (node_ids H) /\ In b (node_ids H) /\ a <> b) ->
  (NoDup (node_ids P) /\ forall a b x, In (a, b, x) (gedges P) -> In a (node_ids P) /\ In b (node_ids P) /\ a <> b) ->
  (lenN (monos_sel na ea H P (node_ids H) (node_ids P)) <= T)%N ->
  let R := find_sel (monos_sel na ea H P) (Cfg 0 0 T strict false) na ea H P in
  let good (m : mapping) :=
    NoDup (map fst m) /\ (forall p, In p (map fst m) <-> In p (node_ids P)) /\ NoDup (map snd m) /\
    (forall p h, In (p, h) m ->
       In h (node_ids H) /\
       (forall k, In k na -> aget k (fst (rlab H h)) = aget k (fst (rlab P p))) /\
       (hc (rlab P p) <= hc (rlab H h))%N) /\
    (forall p h p' h' b, In (p, h) m -> In (p', h') m -> LGraph.adj P p p' = Some b ->
       exists b', LGraph.adj H h h' = Some b' /\ forall k, In k ea -> aget k b' = aget k b) in
  (forall m, In m R -> good m) /\
  (forall m, good m -> exists m', In m' R /\ Permutation m m') /\
  NoDupA (@Permutation (N * N)) R.
Proof. exact sel_all_exact. Qed.
Print Assumptions C06_sel_all_exact.

(** a selection is a SET of names: order and repetitions in node_attrs / edge_attrs are
    immaterial - identical result lists for every configuration (strategy, limits, pre-filter) *)
Theorem C06_sel_same_members : forall (na na' ea ea' : list N) (H P : rgraph) (c : cfg),
  incl na na' -> incl na' na -> incl ea ea' -> incl ea' ea ->
  find_sel (monos_sel na' ea' H P) c na' ea' H P = find_sel (monos_sel na ea H P) c na ea H P.
Proof. exact sel_same_members. Qed.
Print Assumptions C06_sel_same_members.

(** selecting MORE names can only remove matches (exhaustive strategy, thresholds not binding):
    every match under the larger selections is a match under the smaller ones *)
Theorem C06_sel_refines : forall (na na' ea ea' : list N) (T T' : N) (strict strict' : bool) (H P : rgraph),
  (NoDup (node_ids H) /\ forall a b x, In (a, b, x) (gedges H) -> In a (node_ids H) /\ In b (node_ids H) /\ a <> b) ->
  (NoDup (node_ids P) /\ forall a b x, In (a, b, x) (gedges P) -> In a (node_ids P) /\ In b (node_ids P) /\ a <> b) ->
  incl na na' -> incl ea ea' ->
  (lenN (monos_sel na ea H P (node_ids H) (node_ids P)) <= T)%N ->
  (lenN (monos_sel na' ea' H P (node_ids H) (node_ids P)) <= T')%N ->
  forall m, In m (find_sel (monos_sel na' ea' H P) (Cfg 0 0 T' strict' false) na' ea' H P) ->
  exists m', In m' (find_sel (monos_sel na ea H P) (Cfg 0 0 T strict false) na ea H P) /\ Permutation m m'.
Proof. exact sel_refines. Qed.
Print Assumptions C06_sel_refines.

(** ** 7. The VF2 calls of a search (model/C06_Trace.v): intermediate values compared on every case
    - for every configuration the list of (host part, pattern part, number of
    monomorphisms pulled from the iterator), in call order ([trace], evaluated by [run_tr_set] /
    [run_tr_list]; the implementation's GraphMatcher is wrapped to count what is pulled). *)

(** how much of an enumeration one loop consumes: all of it, or max_results / cc_limit items,
    or threshold + 1 items - whichever comes first ([cap = 0] encodes None) *)
Theorem C06_pulled_closed : forall (cap thr : N) (it : list mapping),
  loop_n cap thr it 0 = N.min (lenN it) (N.min (if (cap =? 0)%N then lenN it else cap) (thr + 1)%N).
Proof. exact pulled_closed. Qed.
Print Assumptions C06_pulled_closed.

(** the exhaustive strategy depends on the enumeration only through the items it pulled: the
    monomorphisms VF2 would have listed later have no influence on the result *)
Theorem C06_all_depends_on_pulled : forall (enum : list N -> list N -> list mapping) (maxr thr : N) (H P : graph),
  find_all enum maxr thr H P =
  all_loop maxr thr (firstn (N.to_nat (loop_n maxr thr (enum (node_ids H) (node_ids P)) 0))
                            (enum (node_ids H) (node_ids P))) [] 0%N.
Proof. exact find_all_pulled. Qed.
Print Assumptions C06_all_depends_on_pulled.

(** every call of every configuration is on parts of the two graphs, pulls no more than the
    enumeration has and never more than threshold + 1 monomorphisms *)
Theorem C06_trace_calls : forall (enum : list N -> list N -> list mapping) (c : cfg) (H P : graph)
                                 (hn pn : list N) (k : N),
  In (hn, pn, k) (trace enum c H P) ->
  incl hn (node_ids H) /\ incl pn (node_ids P) /\ (k <= lenN (enum hn pn))%N /\ (k <= c_thr c + 1)%N.
Proof. exact (fun enum c H P hn pn k Hin => trace_ok enum c H P (hn, pn, k) Hin). Qed.
Print Assumptions C06_trace_calls.

(** ** 8. The second sentence of the property on the caller's graphs (dictionaries + selections).
    [comps (project na ea g)] lists the connectivity classes of [g] (C06_components; the projection
    keeps node ids and edges, and the list does not depend on the selections).  Connectivity is written
    out as the reflexive-transitive closure of "joined by an edge of the caller's graph". *)
Theorem C06_sel_comp_spec : forall (na ea : list N) (strict : bool) (H P : rgraph),
  (NoDup (node_ids H) /\ forall a b x, In (a, b, x) (gedges H) -> In a (node_ids H) /\ In b (node_ids H) /\ a <> b) ->
  (NoDup (node_ids P) /\ forall a b x, In (a, b, x) (gedges P) -> In a (node_ids P) /\ In b (node_ids P) /\ a <> b) ->
  exists T0 : N, forall T : N, (T0 <= T)%N ->
  let R := find_sel (monos_sel na ea H P) (Cfg 1 0 T strict false) na ea H P in
  let hcc := length (comps (project na ea H)) in
  let pcc := length (comps (project na ea P)) in
  let conn (g : rgraph) := clos_refl_trans N (fun a b => LGraph.adj g a b <> None) in
  let sep (m : mapping) := forall p h p' h', In (p, h) m -> In (p', h') m -> conn H h h' -> conn P p p' in
  NoDupA (@Permutation (N * N)) R /\
  if (0 <? pcc) && (pcc <? hcc) && strict then R = []
  else if hcc <? pcc then
    (forall m, In m R -> is_mono_sel na ea H P m) /\
    (forall m, is_mono_sel na ea H P m -> exists m', In m' R /\ Permutation m m')
  else
    (forall m, In m R -> is_mono_sel na ea H P m /\ sep m) /\
    (forall m, is_mono_sel na ea H P m -> sep m -> exists m', In m' R /\ Permutation m m').
Proof. exact sel_comp_spec. Qed.
Print Assumptions C06_sel_comp_spec.

(** [is_mono_sel] is the predicate written out as [good] in C06_sel_all_exact *)
Theorem C06_sel_spec_meaning : forall (na ea : list N) (H P : rgraph) (m : mapping),
  is_mono_sel na ea H P m <->
  NoDup (map fst m) /\ (forall p, In p (map fst m) <-> In p (node_ids P)) /\ NoDup (map snd m) /\
  (forall p h, In (p, h) m ->
     In h (node_ids H) /\
     (forall k, In k na -> aget k (fst (rlab H h)) = aget k (fst (rlab P p))) /\
     (hc (rlab P p) <= hc (rlab H h))%N) /\
  (forall p h p' h' b, In (p, h) m -> In (p', h') m -> LGraph.adj P p p' = Some b ->
     exists b', LGraph.adj H h h' = Some b' /\ forall k, In k ea -> aget k b' = aget k b).
Proof. intros na ea H P m. unfold is_mono_sel. reflexivity. Qed.
Print Assumptions C06_sel_spec_meaning.

Theorem C06_sel_bt_spec : forall (na ea : list N) (strict : bool) (H P : rgraph),
  exists T0 : N, forall T : N, (T0 <= T)%N ->
  find_sel (monos_sel na ea H P) (Cfg 2 0 T strict false) na ea H P =
  match find_sel (monos_sel na ea H P) (Cfg 1 0 T strict false) na ea H P with
  | [] => find_sel (monos_sel na ea H P) (Cfg 0 0 T strict false) na ea H P
  | primary => primary
  end.
Proof. exact sel_bt_spec. Qed.
Print Assumptions C06_sel_bt_spec.

(** ** 9. Histories (model/C06_Hist.v): the caller's two graph objects as state.  [run_history] - what the
    correspondence evaluates on the history populations - carries the state through the
    script itself: in-place edits with networkx semantics ([apply_edit]), searches on the current state
    (arguments optionally swapped), caller-side mutations of earlier results.  The implementation runs the
    same script on ONE engine object and ONE pair of networkx objects; components, pre-filter verdict,
    result and VF2 calls of every search step are compared. *)

(** everything a search step answers (flags, components, pre-filter verdict, result, VF2 calls) is a
    function of the projections of the two objects onto the selections of that step *)
Theorem C06_hist_reads_projection : forall (na ea : list N) (H H' P P' : rgraph) (cfgs : list cfg),
  project na ea H = project na ea H' -> project na ea P = project na ea P' ->
  run_tr_set na ea H' P' cfgs = run_tr_set na ea H P cfgs.
Proof. exact run_tr_set_reads_projection. Qed.
Print Assumptions C06_hist_reads_projection.

(** hence an in-place edit of an attribute that the next search does not select (and that is not
    hcount) - set or deleted on a node, set on an edge, on either object - does not change the answer of
    that search ... *)
Theorem C06_hist_edit_invisible : forall (na ea : list N) (host_side swap : bool) (c : cfg) (H P : rgraph) (rest : list hstep),
  (forall u k v n, ~ In k na -> k <> HCOUNT_KEY ->
     hd_error (run_hist H P (HEdit host_side (ESetNodeAttr u k v n) :: HSearch swap na ea c :: rest)) =
     hd_error (run_hist H P (HSearch swap na ea c :: rest))) /\
  (forall u k, ~ In k na -> k <> HCOUNT_KEY ->
     hd_error (run_hist H P (HEdit host_side (EDelNodeAttr u k) :: HSearch swap na ea c :: rest)) =
     hd_error (run_hist H P (HSearch swap na ea c :: rest))) /\
  (forall a b k v, ~ In k ea ->
     hd_error (run_hist H P (HEdit host_side (ESetEdgeAttr a b k v) :: HSearch swap na ea c :: rest)) =
     hd_error (run_hist H P (HSearch swap na ea c :: rest))).
Proof.
  exact (fun na ea hs sw c H P rest =>
    conj (fun u k v n Hn Hk => hist_edit_invisible na ea (ESetNodeAttr u k v n) hs sw c H P rest (conj Hn Hk))
   (conj (fun u k Hn Hk => hist_edit_invisible na ea (EDelNodeAttr u k) hs sw c H P rest (conj Hn Hk))
         (fun a b k v Hn => hist_edit_invisible na ea (ESetEdgeAttr a b k v) hs sw c H P rest Hn))).
Qed.
Print Assumptions C06_hist_edit_invisible.

(** ... while results are values and searches do not change the state: mutating an earlier result is a
    no-op, and a repeated request is answered from the current state again (examples
    [ex_hist_bond_moved], [ex_hist_edit_seen] of proof/C06_Hist.v: an edit of a selected attribute, or a
    bond moved in place with node and edge counts unchanged, IS seen by the next search) *)
Theorem C06_hist_results_are_values : forall (H P : rgraph) (swap : bool) (na ea : list N) (c : cfg) (rest : list hstep),
  run_hist H P (HMutateResult :: rest) = run_hist H P rest /\
  run_hist H P (HSearch swap na ea c :: HSearch swap na ea c :: rest) =
  (if swap then run_tr_set na ea P H [c] else run_tr_set na ea H P [c]) :: run_hist H P (HSearch swap na ea c :: rest).
Proof. exact (fun H P swap na ea c rest => conj (hist_mutate_result_noop H P rest) (hist_search_pure swap na ea c H P rest)). Qed.
Print Assumptions C06_hist_results_are_values.

(** ** 10. The per-component embedding lists from the trace: the list the component-aware search
    collects for one pattern component ([per_cc[j]]: pairs of host-component index and embedding) is the
    concatenation, over the VF2 calls made for that component, of the pulled prefix of each enumeration
    ([pulled_items], lib/C06_TraceSpec.v) - so the compared trace together with the recorded
    enumerations determines this intermediate value *)
Theorem C06_per_cc_from_trace : forall (enum : list N -> list N -> list mapping) (cap thr : N) (pc : list N)
                                       (cands : list (nat * list N)) (maps : list (nat * mapping)),
  cc_outer enum cap thr pc cands [] 0%N = Some maps ->
  maps = pulled_items enum pc cands (cc_outer_calls enum cap thr pc cands 0%N).
Proof. exact per_cc_from_calls. Qed.
Print Assumptions C06_per_cc_from_trace.

(** ** 11. What the in-place edits do (networkx semantics, pointwise; [apply_edit] of model/C06_Hist.v is
    what [run_history] applies to the state and what the implementation's networkx objects are compared
    with at every search step) *)

(** [g.nodes[u][k] = v]: the entry has the new value, every other entry of every dictionary, the numeric
    hcounts (unless the name is "hcount"), the node list and the edges are unchanged *)
Theorem C06_edit_set_node_attr : forall (g : rgraph) (u k v n : N),
  let g' := apply_edit (ESetNodeAttr u k v n) g in
  node_ids g' = node_ids g /\ gedges g' = gedges g /\
  (In u (node_ids g) -> aget k (fst (rlab g' u)) = v) /\
  (forall x k', x <> u \/ k' <> k -> aget k' (fst (rlab g' x)) = aget k' (fst (rlab g x))) /\
  (forall x, x <> u \/ k <> HCOUNT_KEY -> hc (rlab g' x) = hc (rlab g x)) /\
  (In u (node_ids g) -> k = HCOUNT_KEY -> hc (rlab g' u) = n).
Proof. exact set_node_attr_spec. Qed.
Print Assumptions C06_edit_set_node_attr.

(** [g.remove_edge(a, b)] / [g.add_edge(a, b, **d)] (two existing nodes, not joined yet): exactly that
    pair changes, the nodes stay, the edge count goes down (by at most the entries of that pair) / up by one *)
Theorem C06_edit_bonds : forall (g : rgraph) (a b : N) (d : rattrs),
  (let g' := apply_edit (ERemoveEdge a b) g in
   gnodes g' = gnodes g /\ LGraph.adj g' a b = None /\
   (forall x y, ~ ((x = a /\ y = b) \/ (x = b /\ y = a)) -> LGraph.adj g' x y = LGraph.adj g x y) /\
   length (gedges g') <= length (gedges g)) /\
  (LGraph.adj g a b = None -> In a (node_ids g) -> In b (node_ids g) ->
   let g' := apply_edit (EAddEdge a b d) g in
   gnodes g' = gnodes g /\ LGraph.adj g' a b = Some d /\
   (forall x y, ~ ((x = a /\ y = b) \/ (x = b /\ y = a)) -> LGraph.adj g' x y = LGraph.adj g x y) /\
   length (gedges g') = S (length (gedges g))).
Proof. exact (fun g a b d => conj (remove_edge_spec g a b) (add_edge_spec g a b d)). Qed.
Print Assumptions C06_edit_bonds.

(** ** 12. Presentations: renaming node ids (bijection [f] with inverse [f'] between the node lists) and
    re-ordering the node / edge lists changes neither the labels nor the bonds ([presents], written out
    below).  The matches of (H, P) then correspond, through the renamings, to those of (H', P') - this is
    what justifies running ONE presentation per isomorphism class in the exhaustive populations. *)
Theorem C06_presents_meaning : forall (f f' : N -> N) (G G' : graph),
  presents f f' G G' <->
  (forall u, In u (node_ids G) -> In (f u) (node_ids G')) /\
  (forall u', In u' (node_ids G') -> In (f' u') (node_ids G)) /\
  (forall u, In u (node_ids G) -> f' (f u) = u) /\
  (forall u', In u' (node_ids G') -> f (f' u') = u') /\
  (forall u, In u (node_ids G) -> lab G' (f u) = lab G u) /\
  (forall u v, In u (node_ids G) -> In v (node_ids G) -> LGraph.adj G' (f u) (f v) = LGraph.adj G u v).
Proof.
  intros f f' G G'. split.
  - intros [A B C D E F]. repeat split; assumption.
  - intros (A & B & C & D & E & F). constructor; assumption.
Qed.
Print Assumptions C06_presents_meaning.

(** the specification is invariant: a monomorphism of (H, P), renamed, is a monomorphism of (H', P') *)
Theorem C06_mono_presentation_invariant : forall (f f' g g' : N -> N) (H H' P P' : graph) (m : mapping),
  presents f f' H H' -> presents g g' P P' -> is_mono H P m ->
  is_mono H' P' (map (fun ph => (g (fst ph), f (snd ph))) m).
Proof. exact is_mono_presents. Qed.
Print Assumptions C06_mono_presentation_invariant.

(** exhaustive strategy, no limits: every result for (H, P), renamed, is (as a set of pairs) a result for
    (H', P') - and conversely, by the same statement for the inverse renamings *)
Theorem C06_all_presentation_invariant :
  forall (enum enum' : list N -> list N -> list mapping) (T T' : N) (strict strict' : bool)
         (f f' g g' : N -> N) (H H' P P' : graph),
  presents f f' H H' -> presents g g' P P' ->
  vf2_contract enum H P (node_ids H) (node_ids P) -> vf2_contract enum' H' P' (node_ids H') (node_ids P') ->
  (lenN (enum (node_ids H) (node_ids P)) <= T)%N -> (lenN (enum' (node_ids H') (node_ids P')) <= T')%N ->
  forall m, In m (find enum (Cfg 0 0 T strict false) H P) ->
  exists m', In m' (find enum' (Cfg 0 0 T' strict' false) H' P') /\
             Permutation (map (fun ph => (g (fst ph), f (snd ph))) m) m'.
Proof. exact all_presentation_invariant. Qed.
Print Assumptions C06_all_presentation_invariant.

(** component-aware strategy, no limits: the same; inside, two presentations have the same number of
    components ([comps_count_presents]), so both fall into the same case of C06_comp_spec *)
Theorem C06_comp_presentation_invariant :
  forall (enum enum' : list N -> list N -> list mapping) (strict : bool) (f f' g g' : N -> N) (H H' P P' : graph),
  gwf H -> gwf P -> gwf H' -> gwf P' ->
  presents f f' H H' -> presents g g' P P' ->
  oracle_ok enum H P -> oracle_ok enum' H' P' ->
  exists T0 : N, forall T : N, (T0 <= T)%N ->
  forall m, In m (find enum (Cfg 1 0 T strict false) H P) ->
  exists m', In m' (find enum' (Cfg 1 0 T strict false) H' P') /\
             Permutation (map (fun ph => (g (fst ph), f (snd ph))) m) m'.
Proof. exact comp_presentation_invariant. Qed.
Print Assumptions C06_comp_presentation_invariant.

Theorem C06_component_count_invariant : forall (f f' : N -> N) (G G' : graph),
  gwf G -> gwf G' -> presents f f' G G' -> length (comps G') = length (comps G).
Proof. exact comps_count_presents. Qed.
Print Assumptions C06_component_count_invariant.

(** ** 13. Selections extended by names that no node (edge) of either graph carries: [dict.get] gives None on
    both sides, so such a name can be added to or dropped from node_attrs (edge_attrs) without changing
    any answer - for every configuration *)
Theorem C06_sel_unused_name : forall (k : N) (na ea : list N) (H P : rgraph) (c : cfg),
  ((forall u l, label H u = Some l -> aget k (fst l) = 0%N) ->
   (forall u l, label P u = Some l -> aget k (fst l) = 0%N) ->
   find_sel (monos_sel (k :: na) ea H P) c (k :: na) ea H P = find_sel (monos_sel na ea H P) c na ea H P) /\
  ((forall u v d, LGraph.adj H u v = Some d -> aget k d = 0%N) ->
   (forall u v d, LGraph.adj P u v = Some d -> aget k d = 0%N) ->
   find_sel (monos_sel na (k :: ea) H P) c na (k :: ea) H P = find_sel (monos_sel na ea H P) c na ea H P).
Proof.
  exact (fun k na ea H P c => conj (fun A B => sel_unused_node_name k na ea H P A B c)
                                   (fun A B => sel_unused_edge_name k na ea H P A B c)).
Qed.
Print Assumptions C06_sel_unused_name.

(** ** 14. The call with EVERY option omitted, on the caller's graphs (what [run_sel_api] evaluates for such a
    call; threshold 5000 not binding): [] as soon as the host has more components than a non-empty pattern,
    all monomorphisms when it has fewer, the separating ones otherwise *)
Theorem C06_sel_default_call : forall (na ea : list N) (H P : rgraph),
  (NoDup (node_ids H) /\ forall a b x, In (a, b, x) (gedges H) -> In a (node_ids H) /\ In b (node_ids H) /\ a <> b) ->
  (NoDup (node_ids P) /\ forall a b x, In (a, b, x) (gedges P) -> In a (node_ids P) /\ In b (node_ids P) /\ a <> b) ->
  (forall T', (5000 <= T')%N ->
     find_sel (monos_sel na ea H P) (Cfg 1 0 T' true false) na ea H P =
     find_sel (monos_sel na ea H P) (Cfg 1 0 5000 true false) na ea H P) ->
  exists R, find_api (monos_sel na ea H P) SDefault None None None None (project na ea H) (project na ea P) = Result R /\
  let hcc := length (comps (project na ea H)) in
  let pcc := length (comps (project na ea P)) in
  let conn (g : rgraph) := clos_refl_trans N (fun a b => LGraph.adj g a b <> None) in
  let sep (m : mapping) := forall p h p' h', In (p, h) m -> In (p', h') m -> conn H h h' -> conn P p p' in
  NoDupA (@Permutation (N * N)) R /\
  if (0 <? pcc) && (pcc <? hcc) then R = []
  else if hcc <? pcc then
    (forall m, In m R -> is_mono_sel na ea H P m) /\
    (forall m, is_mono_sel na ea H P m -> exists m', In m' R /\ Permutation m m')
  else
    (forall m, In m R -> is_mono_sel na ea H P m /\ sep m) /\
    (forall m, is_mono_sel na ea H P m -> sep m -> exists m', In m' R /\ Permutation m m').
Proof. exact sel_default_call. Qed.
Print Assumptions C06_sel_default_call.

(** ** 15. Non-interference over whole histories.  [agree_off k g1 g2] (lib/C06_HistSpec.v, written out in
    [C06_agree_off_meaning]): two states of a graph object that differ at most in the values stored under the
    node-attribute name [k].  Running the SAME script - any edits, of [k] or of anything else, on either object;
    result mutations; searches with arguments swapped or not - from two pairs of states that agree off [k]
    gives identical answers at every search that does not select [k]. *)
Theorem C06_agree_off_meaning : forall (k : N) (g1 g2 : rgraph),
  agree_off k g1 g2 <->
  gedges g1 = gedges g2 /\
  Forall2 (fun p1 p2 : N * rnlab =>
             fst p1 = fst p2 /\ snd (snd p1) = snd (snd p2) /\
             NoDup (map fst (fst (snd p1))) /\ NoDup (map fst (fst (snd p2))) /\
             forall k', k' <> k -> aget k' (fst (snd p1)) = aget k' (fst (snd p2)))
          (gnodes g1) (gnodes g2).
Proof. intros k g1 g2. unfold agree_off, dict_ok. reflexivity. Qed.
Print Assumptions C06_agree_off_meaning.

Theorem C06_hist_noninterference : forall (k : N) (steps : list hstep) (H1 H2 P1 P2 : rgraph),
  agree_off k H1 H2 -> agree_off k P1 P2 ->
  Forall (fun s => match s with
                   | HEdit _ (EAddNode _ l) => NoDup (map fst (fst l))     (* a created node has one entry per key *)
                   | HEdit _ _ => True
                   | HSearch _ na _ _ => ~ In k na
                   | HMutateResult => True
                   end) steps ->
  run_hist H1 P1 steps = run_hist H2 P2 steps.
Proof. exact hist_noninterference. Qed.
Print Assumptions C06_hist_noninterference.

(** the instance the histories exercise: an in-place edit [g.nodes[u][k] = v] ([k] not "hcount") of either
    object is never seen by a script in which no search selects [k] *)
Theorem C06_hist_edit_never_seen : forall (k u v n : N) (host_side : bool) (H P : rgraph) (steps : list hstep),
  k <> HCOUNT_KEY ->
  Forall (fun p : N * rnlab => NoDup (map fst (fst (snd p)))) (gnodes H) ->
  Forall (fun p : N * rnlab => NoDup (map fst (fst (snd p)))) (gnodes P) ->
  Forall (fun s => match s with
                   | HEdit _ (EAddNode _ l) => NoDup (map fst (fst l))
                   | HEdit _ _ => True
                   | HSearch _ na _ _ => ~ In k na
                   | HMutateResult => True
                   end) steps ->
  run_hist H P (HEdit host_side (ESetNodeAttr u k v n) :: steps) = run_hist H P steps.
Proof. exact hist_edit_never_seen. Qed.
Print Assumptions C06_hist_edit_never_seen.

(** the first entry of every compared history observable is the flag below; when it is true (the harness
    compares it with the constant true) the dictionaries of the two initial objects and of every created node
    have one entry per key - the well-formedness premises of the theorems above and of section 17 *)
Theorem C06_hist_premise_monitor : forall (H P : rgraph) (steps : list hstep),
  state_okb H && state_okb P && forallb step_okb steps = true ->
  (Forall (fun p : N * rnlab => NoDup (map fst (fst (snd p)))) (gnodes H) /\
   Forall (fun e : N * N * rattrs => NoDup (map fst (snd e))) (gedges H)) /\
  (Forall (fun p : N * rnlab => NoDup (map fst (fst (snd p)))) (gnodes P) /\
   Forall (fun e : N * N * rattrs => NoDup (map fst (snd e))) (gedges P)) /\
  Forall (fun s => match s with
                   | HEdit _ (EAddNode _ l) => NoDup (map fst (fst l))
                   | HEdit _ (EAddEdge _ _ d) => NoDup (map fst d)
                   | _ => True
                   end) steps.
Proof. exact hist_monitor. Qed.
Print Assumptions C06_hist_premise_monitor.

(** ** 16. The calls of the trace are exactly of the two kinds the premise [oracle_ok] constrains - the
    whole host against the whole pattern, or a pattern component against a host component that is large
    enough - so under [oracle_ok] every enumeration the search pulls from meets the VF2 contract, and the
    premise asks for nothing the code does not call *)
Theorem C06_trace_calls_covered : forall (enum : list N -> list N -> list mapping) (c : cfg) (H P : graph)
                                         (hn pn : list N) (k : N),
  In (hn, pn, k) (trace enum c H P) ->
  (hn = node_ids H /\ pn = node_ids P) \/
  (In hn (comps H) /\ In pn (comps P) /\ length pn <= length hn).
Proof. exact (fun enum c H P hn pn k Hin => trace_kind enum c H P (hn, pn, k) Hin). Qed.
Print Assumptions C06_trace_calls_covered.

Theorem C06_trace_calls_under_contract : forall (enum : list N -> list N -> list mapping) (c : cfg) (H P : graph)
                                                (hn pn : list N) (k : N),
  oracle_ok enum H P -> In (hn, pn, k) (trace enum c H P) -> vf2_contract enum H P hn pn.
Proof. exact (fun enum c H P hn pn k => trace_calls_under_contract enum c H P hn pn k). Qed.
Print Assumptions C06_trace_calls_under_contract.

(** ** 17. The same for EDGE-attribute names: states that differ at most in the values stored under the
    edge-attribute name [k] (same nodes; edges with the same end points in the same order, one entry per key,
    the same [dict.get] for every other name) cannot be told apart by searches whose edge_attrs do not
    contain [k], whatever edits are interleaved *)
Theorem C06_hist_noninterference_edge : forall (k : N) (steps : list hstep) (H1 H2 P1 P2 : rgraph),
  (gnodes H1 = gnodes H2 /\
   Forall2 (fun e1 e2 : N * N * rattrs =>
              fst (fst e1) = fst (fst e2) /\ snd (fst e1) = snd (fst e2) /\
              NoDup (map fst (snd e1)) /\ NoDup (map fst (snd e2)) /\
              forall k', k' <> k -> aget k' (snd e1) = aget k' (snd e2)) (gedges H1) (gedges H2)) ->
  (gnodes P1 = gnodes P2 /\
   Forall2 (fun e1 e2 : N * N * rattrs =>
              fst (fst e1) = fst (fst e2) /\ snd (fst e1) = snd (fst e2) /\
              NoDup (map fst (snd e1)) /\ NoDup (map fst (snd e2)) /\
              forall k', k' <> k -> aget k' (snd e1) = aget k' (snd e2)) (gedges P1) (gedges P2)) ->
  Forall (fun s => match s with
                   | HEdit _ (EAddEdge _ _ d) => NoDup (map fst d)
                   | HEdit _ _ => True
                   | HSearch _ _ ea _ => ~ In k ea
                   | HMutateResult => True
                   end) steps ->
  run_hist H1 P1 steps = run_hist H2 P2 steps.
Proof. exact hist_noninterference_edge. Qed.
Print Assumptions C06_hist_noninterference_edge.

Theorem C06_hist_edge_edit_never_seen : forall (k a b v : N) (host_side : bool) (H P : rgraph) (steps : list hstep),
  Forall (fun e : N * N * rattrs => NoDup (map fst (snd e))) (gedges H) ->
  Forall (fun e : N * N * rattrs => NoDup (map fst (snd e))) (gedges P) ->
  Forall (fun s => match s with
                   | HEdit _ (EAddEdge _ _ d) => NoDup (map fst d)
                   | HEdit _ _ => True
                   | HSearch _ _ ea _ => ~ In k ea
                   | HMutateResult => True
                   end) steps ->
  run_hist H P (HEdit host_side (ESetEdgeAttr a b k v) :: steps) = run_hist H P steps.
Proof. exact hist_edge_edit_never_seen. Qed.
Print Assumptions C06_hist_edge_edit_never_seen.

(** ** 18. Degenerate inputs.  The empty pattern has exactly one embedding - the empty map - into every host
    (empty or not), for every strategy, cap, strict flag and pre-filter setting, as soon as the threshold is
    at least 1 (threshold 0 is a real threshold: the one-element result is emptied); a non-empty pattern has
    no embedding into the empty host. *)
Theorem C06_empty_pattern : forall (strat maxr T : N) (strict pref : bool) (H : graph),
  (1 <= T)%N ->
  find (monos_on H (LG [] [])) (Cfg strat maxr T strict pref) H (LG [] []) = [[]].
Proof. exact empty_pattern. Qed.
Print Assumptions C06_empty_pattern.

Theorem C06_empty_host : forall (enum : list N -> list N -> list mapping) (c : cfg) (P : graph),
  gwf P -> node_ids P <> [] -> enum [] (node_ids P) = [] ->
  find enum c (LG [] []) P = [].
Proof. exact empty_host. Qed.
Print Assumptions C06_empty_host.

(** ** 19. The hydrogen-count clause is a lower bound: a host that differs only by LARGER hcounts (same node
    ids, same values under every selected name, same bonds) keeps every match of the exhaustive search *)
Theorem C06_sel_hcount_raise : forall (na ea : list N) (T T' : N) (strict strict' : bool) (H H' P : rgraph),
  (NoDup (node_ids H) /\ forall a b x, In (a, b, x) (gedges H) -> In a (node_ids H) /\ In b (node_ids H) /\ a <> b) ->
  (NoDup (node_ids H') /\ forall a b x, In (a, b, x) (gedges H') -> In a (node_ids H') /\ In b (node_ids H') /\ a <> b) ->
  (NoDup (node_ids P) /\ forall a b x, In (a, b, x) (gedges P) -> In a (node_ids P) /\ In b (node_ids P) /\ a <> b) ->
  node_ids H' = node_ids H ->
  (forall u k, In k na -> aget k (fst (rlab H' u)) = aget k (fst (rlab H u))) ->
  (forall u, (hc (rlab H u) <= hc (rlab H' u))%N) ->
  (forall u v, LGraph.adj H' u v = LGraph.adj H u v) ->
  (lenN (monos_sel na ea H P (node_ids H) (node_ids P)) <= T)%N ->
  (lenN (monos_sel na ea H' P (node_ids H') (node_ids P)) <= T')%N ->
  forall m, In m (find_sel (monos_sel na ea H P) (Cfg 0 0 T strict false) na ea H P) ->
  exists m', In m' (find_sel (monos_sel na ea H' P) (Cfg 0 0 T' strict' false) na ea H' P) /\ Permutation m m'.
Proof. exact sel_hcount_raise. Qed.
Print Assumptions C06_sel_hcount_raise.

(** ** 20. Where the code, kept as it is, violates the property text read literally (both are documented
    behaviour of the library; known findings [C06:comp-strict-cc-guard] and [C06:per-component-threshold-guard]
    in known_findings.d/C06.json, witnesses replayed on the implementation on every run from
    corpus/regress/C06/known_deviations.json). *)

(** clause "the component-aware strategy returns exactly those that send different pattern components into
    different host components" is FALSE under the default [strict_cc_count = True] when the host has more
    components than a non-empty pattern (first case of C06_comp_spec): a separating monomorphism exists, the
    default call returns [], [strict_cc_count = False] returns it.  (The clause holds for [strict_cc_count = False]
    and whenever the host does not have more components: cases two and three of C06_comp_spec.) *)
Theorem C06_comp_strict_refuted :
  exists (H P : graph) (m : mapping),
    gwf H /\ gwf P /\ is_mono H P m /\ separating H P m /\
    length (comps P) < length (comps H) /\
    find (monos_on H P) (Cfg 1 0 5000 true false) H P = [] /\
    In m (find (monos_on H P) (Cfg 1 0 5000 false false) H P).
Proof. exact comp_strict_refuted. Qed.
Print Assumptions C06_comp_strict_refuted.

(** clause "result limits only truncate the list or, past the threshold, empty it" is FALSE for the
    component-aware and the fallback strategy when one pattern component alone has more than threshold
    embeddings (second alternative of C06_limits): the unlimited result has 3 mappings, threshold 3 is not
    exceeded, [] is returned.  (The clause holds without exception for the exhaustive strategy:
    C06_limits_all.) *)
Theorem C06_limits_comp_refuted :
  exists (H P : graph) (thr : N),
    let U := find (monos_on H P) (Cfg 1 0 5000 true false) H P in
    lenN U = 3%N /\ thr = 3%N /\
    limit 0 thr U = U /\
    find (monos_on H P) (Cfg 1 0 thr true false) H P = [] /\
    find (monos_on H P) (Cfg 2 0 thr true false) H P = [] /\
    find (monos_on H P) (Cfg 1 0 thr true false) H P <> limit 0 thr U.
Proof. exact limits_comp_refuted. Qed.
Print Assumptions C06_limits_comp_refuted.

(** ** 21. A checkable sufficient condition for the premise "the threshold is not binding" of C06_default_call /
    C06_sel_default_call.  [comp_bound enum strict H P] (proof/C06_Comp.v) is the maximum of the length of the
    limit-free component-aware result ([comp_unl]) and, over the pattern components, of the number of embeddings
    of that component into the large-enough host components ([percc_of]); it is computed by [vm_compute]
    ([ex_not_binding], [ex_sel_default_call]).  From that threshold on the component-aware result is stable. *)
Theorem C06_not_binding_checkable : forall (enum : list N -> list N -> list mapping) (strict : bool) (H P : graph) (T : N),
  (comp_bound enum strict H P <= T)%N ->
  forall T', (T <= T')%N ->
  find enum (Cfg 1 0 T' strict false) H P = find enum (Cfg 1 0 T strict false) H P.
Proof. exact (fun enum strict H P T HT T' HT' => find_comp_stable enum T T' strict H P HT HT'). Qed.
Print Assumptions C06_not_binding_checkable.
