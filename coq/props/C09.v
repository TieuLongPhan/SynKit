(** C09 — reaction normal forms preserve the reaction; equivalence checks are exact.
    Statements only; every proof is [exact] of a lemma of proof/C09_*.v, applied to the hypotheses that lemma needs.

    Vocabulary (model/C01_Model.v, model/C09_Model.v, proof/C09_Canon.v, proof/C09_Valid.v, proof/C09_Main.v):
      [parsed G]            = wf G (distinct ids, simple edges between present atoms) /\ amap_id G (atom_map = node id)
                              /\ pos_ids G (ids <> 0): what rsmi_to_graph(expand_aam(r)) returns (RDKit: monitored)
      [enumerates order G]  = NoDup order /\ forall n, In n order <-> In n (node_ids G): the canonical order of the
                              back-end lists every reactant atom once (C08: proved for wl with ANY colour ranking and
                              for the nauty search)
      [sigma_of order]      = old id -> 1-based position in [order] (GraphCanonicaliser's mapping)
      [relabelled_by s G X] = Permutation (gnodes X) (gnodes (relabel s G)) /\ gedges X = gedges (relabel s G)
                              (X is G with ids renamed by s, all attributes kept, nodes possibly inserted in another order)
      [canonicalise_with Gc H] = CanonRSMI.canonicalise after the canonical reactant graph Gc is known:
                              get_aam_pairwise_indices, partner-less product atoms numbered after the reactant atoms
                              (/repo 8092e28), remap_graph (nx.relabel_nodes), sync_atom_map_with_index ([set_amap])
      [its_emb g1 g2 f]     = f maps the atoms of g2 injectively to atoms of g1 with equal typesGH (both halves:
                              element, aromatic, hcount, charge, neighbors), bonds to bonds with equal order pair,
                              non-bonds to non-bonds
      [its_isomorphic g1 g2]= equally many atoms and bonds /\ exists f, its_emb g1 g2 f
      [smiles_check_its / smiles_check_rc] = AAMValidator.smiles_check (ITS / RC) on the parsed graph pairs.
      [same_upto_order X Y] = Permutation (gnodes X) (gnodes Y) /\ gedges X = gedges Y (the same graph, nodes possibly
                              inserted in another order).
    Two premises are spelled out in the statements below and carry a name in the proof files:
      [shares_atom G H]     = exists s, In s (node_ids G) /\ In s (node_ids H)   (proof/C09_Main.v)
      [keeps_extra_order p G H] = p is monotone on the product atoms without reactant partner   (proof/C09_Indep.v). *)
From Coq Require Import List NArith ZArith Bool Permutation.
From SK Require Import lib.LGraph model.C01_Model model.C02_Model model.C09_Model
  proof.C09_Canon proof.C09_Valid proof.C09_Balance proof.C09_Main proof.C09_Indep proof.C09_Indep2 proof.C09_ValidRC proof.C09_WL proof.C09_NautyRigid proof.C09_Nauty.
From SK Require Import lib.StrJoin model.C09_Strings model.C09_State proof.C09_Str proof.C09_Expand proof.C09_Graph proof.C09_Backends proof.C09_State proof.C09_StrFit.
From SK Require Import model.C09_Helpers proof.C09_Helpers model.C09_Records proof.C09_Records proof.C09_Top proof.C09_Opt.
From SK Require Import model.C01_String model.C01_HBal model.C09_Normalize proof.C09_Normalize proof.C09_NormBalance proof.C09_WLRefuted proof.C09_WLFix proof.C09_NautyFix2.
From SK Require model.C08_Model proof.C08_Spec model.C01_Opts.
Import ListNotations.

(** 1. Canonicalising = relabelling both sides by ONE injective map f (canonical position on the reactant atoms, fresh
       numbers after them on product atoms without partner): the canonical reactant graph is G renamed by f, the
       canonical product graph is H renamed by f, mapping_pairs are exactly the shared atoms, the ITS of the canonical
       reaction is isomorphic to the ITS of the input (atom-map-equivalent) and the validator accepts the pair.
       For every canonical order that enumerates the reactant atoms; balanced or not. *)
Theorem C09_canon_is_relabelling : forall (G H Gc : mgraph) (order : list N),
  parsed G -> parsed H -> enumerates order G -> relabelled_by (sigma_of order) G Gc ->
  (exists s, In s (node_ids G) /\ In s (node_ids H)) ->
  exists (f : N -> N) (pairs : list (N * N)) (Hc : mgraph),
    (forall a b, f a = f b -> a = b) /\
    (forall n, In n (node_ids G) -> f n = sigma_of order n) /\
    canonicalise_with Gc H = Some (set_amap Gc, pairs, set_amap Hc) /\
    relabelled_by f G Gc /\ Hc = relabel f H /\
    (forall a b, In (a, b) pairs <-> In b (node_ids G) /\ In b (node_ids H) /\ a = f b) /\
    its_isomorphic (its_construct (set_amap Gc) (set_amap Hc)) (its_construct G H) /\
    smiles_check_its (set_amap Gc) (set_amap Hc) G H = true.
Proof. exact canon_is_relabelling. Qed.
Print Assumptions C09_canon_is_relabelling.

(** the two back-ends the correspondence runs ([run_canon_wl] / [run_canon_nauty]).  wl: whatever colour ranking the
    WL oracle returns; canonical reactant ids are exactly 1..N. *)
Theorem C09_canon_wl_is_relabelling : forall (ranks : list (N * Z)) (G H : mgraph),
  parsed G -> parsed H -> (exists s, In s (node_ids G) /\ In s (node_ids H)) ->
  exists (f : N -> N) (Gc Hc : mgraph) (pairs : list (N * N)),
    (forall a b, f a = f b -> a = b) /\
    canonicalise_wl ranks G H = Some (set_amap Gc, pairs, set_amap Hc) /\
    relabelled_by f G Gc /\ Hc = relabel f H /\
    Permutation (node_ids Gc) (map N.of_nat (seq 1 (length (gnodes G)))) /\
    its_isomorphic (its_construct (set_amap Gc) (set_amap Hc)) (its_construct G H).
Proof. exact canon_wl_is_relabelling. Qed.
Print Assumptions C09_canon_wl_is_relabelling.

Theorem C09_canon_nauty_is_relabelling : forall G H : mgraph,
  parsed G -> parsed H -> (exists s, In s (node_ids G) /\ In s (node_ids H)) ->
  exists (f : N -> N) (Hc : mgraph) (pairs : list (N * N)),
    (forall a b, f a = f b -> a = b) /\
    canonicalise_nauty G H = Some (set_amap (relabel f G), pairs, set_amap Hc) /\ Hc = relabel f H /\
    its_isomorphic (its_construct (set_amap (relabel f G)) (set_amap Hc)) (its_construct G H).
Proof. exact canon_nauty_is_relabelling. Qed.
Print Assumptions C09_canon_nauty_is_relabelling.

Theorem C09_canon_generic_is_relabelling : forall G H : mgraph,
  parsed G -> parsed H -> (exists s, In s (node_ids G) /\ In s (node_ids H)) ->
  exists (f : N -> N) (Gc Hc : mgraph) (pairs : list (N * N)),
    (forall a b, f a = f b -> a = b) /\
    canonicalise_generic G H = Some (set_amap Gc, pairs, set_amap Hc) /\
    relabelled_by f G Gc /\ Hc = relabel f H /\
    its_isomorphic (its_construct (set_amap Gc) (set_amap Hc)) (its_construct G H).
Proof. exact canon_generic_is_relabelling. Qed.
Print Assumptions C09_canon_generic_is_relabelling.

(** 1'. The step added by repair 8092e28 is necessary: remap_graph with the shared pairs only (the code before the
       repair) can send two product atoms to the same id (witness: the regress case collision#wl). *)
Theorem C09_unbalanced_collision_refuted :
  exists (Gc H : mgraph), NoDup (node_ids H) /\ amap_id H /\
    match remap_graph H (aam_pairs Gc H) with
    | Some Hc => (length (gnodes Hc) < length (gnodes H))%nat
    | None => False
    end.
Proof. exact unbalanced_collision_refuted. Qed.
Print Assumptions C09_unbalanced_collision_refuted.

(** 2. Numbering / atom-order independence and fixed point, graph level, GENERIC over the canonical order of the back-end.
       (They are the generic lemmas "given the invariance of the graph canonicaliser"; section 8 has the RDKit writer / parser
       contract as explicit premises, discharges the invariance premise for nauty on rigid reactant graphs and for wl on
       pairwise distinct colours, treats presentations that list the bonds in another order, and refutes wl with tied colours.)
       Both presentations (G, H) and (p.G, p.H) (node ids renamed by an injective p, atoms listed in any order, atom_map
       attributes rewritten, bonds listed in corresponding order) get THE SAME canonical reactant and product graphs up to node
       insertion order, PROVIDED (premise, last line) the graph canonicaliser gives corresponding atoms the same canonical id,
       and p keeps the relative order of the product atoms WITHOUT reactant partner (they are numbered in the order of their
       input numbers; vacuous when every product atom has a partner; necessary: C09_numbering_partnerless_refuted). *)
Theorem C09_numbering_independent_given_invariance :
  forall (G H G2' H2' Gc1 Gc2 : mgraph) (order1 order2 : list N) (p : N -> N),
  parsed G -> parsed H -> (exists s, In s (node_ids G) /\ In s (node_ids H)) ->
  (forall a b, p a = p b -> a = b) -> (forall n, In n (node_ids G) \/ In n (node_ids H) -> p n <> 0%N) ->
  (forall m n, In m (node_ids H) -> ~ In m (node_ids G) -> In n (node_ids H) -> ~ In n (node_ids G) -> (m <= n)%N -> (p m <= p n)%N) ->
  relabelled_by p G G2' -> relabelled_by p H H2' ->
  enumerates order1 G -> relabelled_by (sigma_of order1) G Gc1 ->
  enumerates order2 (set_amap G2') -> relabelled_by (sigma_of order2) (set_amap G2') Gc2 ->
  (forall n, In n (node_ids G) -> sigma_of order2 (p n) = sigma_of order1 n) ->
  exists (pairs1 pairs2 : list (N * N)) (Hc1 Hc2 : mgraph),
    canonicalise_with Gc1 H = Some (set_amap Gc1, pairs1, set_amap Hc1) /\
    canonicalise_with Gc2 (set_amap H2') = Some (set_amap Gc2, pairs2, set_amap Hc2) /\
    same_upto_order (set_amap Gc2) (set_amap Gc1) /\ same_upto_order (set_amap Hc2) (set_amap Hc1).
Proof. exact presentation_independent_mono. Qed.
Print Assumptions C09_numbering_independent_given_invariance.

(** fixed point (balanced or not, partner-less product atoms included): canonicalising the canonical graphs returns
    them (up to node insertion order) provided the graph canonicaliser maps every canonical reactant id to itself
    (premise; discharged for wl and nauty in section 8, where the string level is treated too). *)
Theorem C09_fixed_point_given_invariance : forall (G H Gc1 : mgraph) (order1 : list N),
  parsed G -> parsed H -> (exists s, In s (node_ids G) /\ In s (node_ids H)) ->
  enumerates order1 G -> relabelled_by (sigma_of order1) G Gc1 ->
  exists (pairs1 : list (N * N)) (Gc1' Hc1' : mgraph),
    canonicalise_with Gc1 H = Some (Gc1', pairs1, Hc1') /\
    forall (order2 : list N) (Gc2 : mgraph),
      enumerates order2 Gc1' -> relabelled_by (sigma_of order2) Gc1' Gc2 ->
      (forall m, In m (node_ids Gc1') -> sigma_of order2 m = m) ->
      exists (pairs2 : list (N * N)) (Hc2' : mgraph),
        canonicalise_with Gc2 Hc1' = Some (set_amap Gc2, pairs2, Hc2') /\
        same_upto_order (set_amap Gc2) Gc1' /\ same_upto_order Hc2' Hc1'.
Proof. exact fixed_point_gen. Qed.
Print Assumptions C09_fixed_point_given_invariance.

(** the order premise of C09_numbering_independent_given_invariance is necessary: with two product atoms without reactant partner
    ([Na+:8] and [K+:9] added to CH3Br + OH- >> CH3OH + Br-), exchanging their numbers - a renumbering that fixes every
    reactant atom - exchanges their canonical numbers: canonical product atom 4 is Na in one presentation and K in the
    other although all reactant atoms are distinguishable.  Known finding (key partnerless-product-atoms-order). *)
Theorem C09_numbering_partnerless_refuted :
  exists (G H : mgraph) (order : list N) (p : N -> N),
    parsed G /\ enumerates order G /\ (forall a b, p a = p b -> a = b) /\ (forall n, In n (node_ids G) -> p n = n) /\
    exists Gc1 pr1 Hc1 Gc2 pr2 Hc2,
      canonicalise_with (canon_rebuild order G) H = Some (Gc1, pr1, Hc1) /\
      canonicalise_with (canon_rebuild order G) (set_amap (relabel p H)) = Some (Gc2, pr2, Hc2) /\
      option_map g_el (label Hc1 4%N) <> option_map g_el (label Hc2 4%N).
Proof. exact partnerless_order_refuted. Qed.
Print Assumptions C09_numbering_partnerless_refuted.

(** 2'. Back-end wl, invariance premise DISCHARGED: if the WL colours (oracle input [ranks]; networkx's contract: colours
       are invariant under renaming - premise) of corresponding atoms correspond and all reactant atoms have different
       colours ([ranks_distinct]), the two presentations get the same canonical graphs from [canonicalise_wl] (the
       function [run_canon_wl] evaluates), and a second run on the canonical graphs returns them.  These two statements are
       for presentations that list the bonds in corresponding order (conclusion: the SAME bond list); the general case
       (any atom order, bond order, bond orientation) and the string level are section 8 below. *)
Theorem C09_numbering_independent_wl_same_bond_order :
  forall (ranks1 ranks2 : list (N * Z)) (G H G2' H2' : mgraph) (p : N -> N),
  parsed G -> parsed H -> (exists s, In s (node_ids G) /\ In s (node_ids H)) ->
  (forall a b, p a = p b -> a = b) -> (forall n, In n (node_ids G) \/ In n (node_ids H) -> p n <> 0%N) ->
  (forall m n, In m (node_ids H) -> ~ In m (node_ids G) -> In n (node_ids H) -> ~ In n (node_ids G) -> (m <= n)%N -> (p m <= p n)%N) ->
  relabelled_by p G G2' -> relabelled_by p H H2' ->
  (forall n, In n (node_ids G) -> C08_Model.rank_of ranks2 (p n) = C08_Model.rank_of ranks1 n) -> ranks_distinct ranks1 G ->
  exists (pairs1 pairs2 : list (N * N)) (Gc1 Gc2 Hc1 Hc2 : mgraph),
    canonicalise_wl ranks1 G H = Some (Gc1, pairs1, Hc1) /\
    canonicalise_wl ranks2 (set_amap G2') (set_amap H2') = Some (Gc2, pairs2, Hc2) /\
    same_upto_order Gc2 Gc1 /\ same_upto_order Hc2 Hc1.
Proof. exact numbering_independent_wl. Qed.
Print Assumptions C09_numbering_independent_wl_same_bond_order.

Theorem C09_fixed_point_wl_same_bond_order : forall (ranks1 ranks2 : list (N * Z)) (G H : mgraph),
  parsed G -> parsed H -> (exists s, In s (node_ids G) /\ In s (node_ids H)) ->
  ranks_distinct ranks1 G ->
  (forall n, In n (node_ids G) -> C08_Model.rank_of ranks2 (sigma_of (wl_order ranks1 G) n) = C08_Model.rank_of ranks1 n) ->
  exists (pairs1 : list (N * N)) (Gc1 Hc1 : mgraph),
    canonicalise_wl ranks1 G H = Some (Gc1, pairs1, Hc1) /\
    exists (pairs2 : list (N * N)) (Gc2 Hc2 : mgraph),
      canonicalise_wl ranks2 Gc1 Hc1 = Some (Gc2, pairs2, Hc2) /\ same_upto_order Gc2 Gc1 /\ same_upto_order Hc2 Hc1.
Proof. exact (fun ranks1 ranks2 G H PG PH Hs _ => fixed_point_wl_ties ranks1 ranks2 G H PG PH Hs). Qed.
Print Assumptions C09_fixed_point_wl_same_bond_order.

(** 2''. Back-end nauty, invariance premise DISCHARGED from the C08 facts about the search (the best leaf of a renamed
       graph is the image of a leaf with the same label; leaves with the same label correspond by an automorphism):
       when all reactant atoms are distinguishable ([rigid (to_c08 G)]: the only position-wise correspondence between two
       enumerations of the atoms that keeps element, charge, aromaticity, hydrogen count and the bonds is the identity)
       and the element symbols are alphanumeric ([els_ok]), the two presentations get the same canonical graphs from
       [canonicalise_nauty] (the function [run_canon_nauty] evaluates), and a second run returns the canonical graphs.
       Same remark: bonds listed in corresponding order here; general case and string level in section 8. *)
Theorem C09_numbering_independent_nauty_same_bond_order : forall (G H G2' H2' : mgraph) (p : N -> N),
  parsed G -> parsed H -> (exists s, In s (node_ids G) /\ In s (node_ids H)) ->
  (forall a b, p a = p b -> a = b) -> (forall n, In n (node_ids G) \/ In n (node_ids H) -> p n <> 0%N) ->
  (forall m n, In m (node_ids H) -> ~ In m (node_ids G) -> In n (node_ids H) -> ~ In n (node_ids G) -> (m <= n)%N -> (p m <= p n)%N) ->
  relabelled_by p G G2' -> relabelled_by p H H2' ->
  C08_Spec.els_ok (to_c08 G) -> rigid (to_c08 G) ->
  exists (pairs1 pairs2 : list (N * N)) (Gc1 Gc2 Hc1 Hc2 : mgraph),
    canonicalise_nauty G H = Some (Gc1, pairs1, Hc1) /\
    canonicalise_nauty (set_amap G2') (set_amap H2') = Some (Gc2, pairs2, Hc2) /\
    same_upto_order Gc2 Gc1 /\ same_upto_order Hc2 Hc1.
Proof. exact numbering_independent_nauty. Qed.
Print Assumptions C09_numbering_independent_nauty_same_bond_order.

Theorem C09_fixed_point_nauty_same_bond_order : forall G H : mgraph,
  parsed G -> parsed H -> (exists s, In s (node_ids G) /\ In s (node_ids H)) ->
  C08_Spec.els_ok (to_c08 G) -> rigid (to_c08 G) ->
  exists (pairs1 : list (N * N)) (Gc1 Hc1 : mgraph),
    canonicalise_nauty G H = Some (Gc1, pairs1, Hc1) /\
    exists (pairs2 : list (N * N)) (Gc2 Hc2 : mgraph),
      canonicalise_nauty Gc1 Hc1 = Some (Gc2, pairs2, Hc2) /\ same_upto_order Gc2 Gc1 /\ same_upto_order Hc2 Hc1.
Proof. exact (fun G H PG PH Hs _ _ => fixed_point_nauty_rerun G H PG PH Hs). Qed.
Print Assumptions C09_fixed_point_nauty_same_bond_order.

(** 3. The validator is exact: the matcher the correspondence runs answers true iff the two ITS graphs (resp. the two
       reaction centres) are isomorphic on typesGH + order. *)
Theorem C09_validator_exact : forall G1 H1 G2 H2 : mgraph, wf G2 -> wf H2 ->
  (smiles_check_its G1 H1 G2 H2 = true <-> its_isomorphic (its_construct G1 H1) (its_construct G2 H2)) /\
  (smiles_check_rc G1 H1 G2 H2 = true <->
     its_isomorphic (get_rc (its_construct G1 H1)) (get_rc (its_construct G2 H2))).
Proof. exact validator_exact. Qed.
Print Assumptions C09_validator_exact.

(** options: with ignore_aromaticity = ia the validator is exact on the ITS / centre built with that option
    ([its_construct_o], C01_Opts: standard_order zeroed when the orders differ by less than 1); ia = false is the function
    above.  The model functions are pure: a verdict never depends on the calls made before (the implementation is
    compared step by step in history cases). *)
Theorem C09_validator_exact_options : forall (ia : bool) (G1 H1 G2 H2 : mgraph), wf G2 -> wf H2 ->
  (smiles_check_its_o ia G1 H1 G2 H2 = true <->
     its_isomorphic (C01_Opts.its_construct_o (vopts ia) G1 H1) (C01_Opts.its_construct_o (vopts ia) G2 H2)) /\
  (smiles_check_rc_o ia G1 H1 G2 H2 = true <->
     its_isomorphic (get_rc (C01_Opts.its_construct_o (vopts ia) G1 H1)) (get_rc (C01_Opts.its_construct_o (vopts ia) G2 H2))).
Proof. exact validator_exact_o. Qed.
Print Assumptions C09_validator_exact_options.

Theorem C09_validator_default_option : forall G1 H1 G2 H2 : mgraph,
  smiles_check_its_o false G1 H1 G2 H2 = smiles_check_its G1 H1 G2 H2 /\
  smiles_check_rc_o false G1 H1 G2 H2 = smiles_check_rc G1 H1 G2 H2.
Proof. exact smiles_check_o_default. Qed.
Print Assumptions C09_validator_default_option.

(** every renumbering of a mapping is accepted, by both methods, also with re-ordered atoms and rewritten atom_map
    attributes, as the parser of the renumbered string delivers them ([relabelled_by f G G'], [set_amap]) *)
Theorem C09_validator_renumbering : forall (f : N -> N) (G H : mgraph),
  (forall a b, f a = f b -> a = b) -> wf G -> wf H ->
  smiles_check_its (relabel f G) (relabel f H) G H = true /\
  smiles_check_rc (relabel f G) (relabel f H) G H = true /\
  (forall G' H', relabelled_by f G G' -> relabelled_by f H H' -> smiles_check_its (set_amap G') (set_amap H') G H = true).
Proof. exact validator_renumbering. Qed.
Print Assumptions C09_validator_renumbering.

Theorem C09_validator_renumbering_rc : forall (f : N -> N) (G H G' H' : mgraph),
  (forall a b, f a = f b -> a = b) -> wf G -> wf H ->
  relabelled_by f G G' -> relabelled_by f H H' -> smiles_check_rc (set_amap G') (set_amap H') G H = true.
Proof. exact validator_renumbering_rc. Qed.
Print Assumptions C09_validator_renumbering_rc.

(** a mapping in which the product-side numbers of two atoms x, y are transposed is rejected whenever it is not
    equivalent to the reference, i.e. whenever x and y are not interchangeable: no isomorphism between the swapped
    and the reference ITS (resp. centre).  (By C09_validator_exact this is an equivalence: the swap is accepted iff
    the transposition factors through automorphisms of the two sides.) *)
Theorem C09_validator_rejects_swap : forall (x y : N) (G H : mgraph), wf G -> wf H ->
  (~ its_isomorphic (its_construct G (relabel (transp x y) H)) (its_construct G H) ->
   smiles_check_its G (relabel (transp x y) H) G H = false) /\
  (~ its_isomorphic (get_rc (its_construct G (relabel (transp x y) H))) (get_rc (its_construct G H)) ->
   smiles_check_rc G (relabel (transp x y) H) G H = false).
Proof. exact validator_rejects_swap. Qed.
Print Assumptions C09_validator_rejects_swap.

(** 4. Balance, graph level: true exactly when every element count (implicit hydrogens counted as H atoms) and the
       total charge agree.  (BalanceReactionCheck compares RDKit's CalcMolFormula strings: oracle, monitored.) *)
Theorem C09_balance_iff : forall G H : mgraph,
  balancedb G H = true <-> (forall e, el_count e G = el_count e H) /\ total_charge G = total_charge H.
Proof. exact balance_iff. Qed.
Print Assumptions C09_balance_iff.

(** dicts_balance_check: the records are split into (balanced, unbalanced) without loss or duplication, and a
    record is in the balanced list exactly when its element counts (with H) and total charge agree *)
Theorem C09_balance_partition : forall (X : Type) (rs : list (X * (mgraph * mgraph))),
  Permutation (fst (balance_partition rs) ++ snd (balance_partition rs)) (map fst rs) /\
  (forall x, In x (fst (balance_partition rs)) <->
     exists G H, In (x, (G, H)) rs /\ (forall e, el_count e G = el_count e H) /\ total_charge G = total_charge H) /\
  (forall x, In x (snd (balance_partition rs)) <->
     exists G H, In (x, (G, H)) rs /\ ~ ((forall e, el_count e G = el_count e H) /\ total_charge G = total_charge H)).
Proof. exact @balance_partition_spec. Qed.
Print Assumptions C09_balance_partition.

(** remap_graph in its list form: for a duplicate-free list of all nodes it relabels every node to its 1-based
    position in the list, i.e. it is [relabel (sigma_of l)] - the same relabelling the canonicaliser applies to the reactants *)
Theorem C09_remap_graph_list : forall (H : mgraph) (l : list N),
  wf H -> NoDup l -> (forall n, In n l <-> In n (node_ids H)) -> l <> [] ->
  remap_graph_list H l = Some (relabel (sigma_of l) H).
Proof. exact remap_graph_list_spec. Qed.
Print Assumptions C09_remap_graph_list.

(** 5. STRING LEVEL (model/C09_Strings.v): the logic of Standardize around the RDKit calls.  RDKit enters as oracle
       functions: [canon f] = the canonical SMILES filter_valid_molecules + MolToSmiles give for ONE fragment string (None =
       filtered out), [clean side] = remove_atom_mapping's clean_smiles.  The model functions are what the correspondence
       evaluates on every `std` case ([run_std]: all six ways of calling the standardiser, the filtered fragment lists,
       remove_atom_mapping, categorize_reactions), with the oracle tables computed by calling RDKit directly.
       Vocabulary: [rsmi_of rs ps] = ".".join(rs) + ">>" + ".".join(ps); [frags_ok l] = l non-empty, no '.' and no '>' inside
       a fragment (what str.split produces from a reaction string). *)

(** the standard form depends ONLY on the multiset of canonical fragment strings of each side - for every oracle.  Instances:
    fragment order (any permutation of the fragments of both sides), atom order / re-rooting (fragments with the same
    canonical string), both at once. *)
Theorem C09_standardize_multiset : forall (canon : str -> option str) (rs ps rs' ps' : list str),
  frags_ok rs -> frags_ok ps -> frags_ok rs' -> frags_ok ps' ->
  Permutation (map canon rs) (map canon rs') -> Permutation (map canon ps) (map canon ps') ->
  standardize_rsmi canon (rsmi_of rs ps) = standardize_rsmi canon (rsmi_of rs' ps').
Proof. exact standardize_multiset. Qed.
Print Assumptions C09_standardize_multiset.

Theorem C09_standardize_fragment_order : forall (canon : str -> option str) (rs ps rs' ps' : list str),
  frags_ok rs -> frags_ok ps -> Permutation rs rs' -> Permutation ps ps' ->
  standardize_rsmi canon (rsmi_of rs ps) = standardize_rsmi canon (rsmi_of rs' ps').
Proof. exact standardize_fragment_order. Qed.
Print Assumptions C09_standardize_fragment_order.

Theorem C09_standardize_rewriting : forall (canon : str -> option str) (rs ps rs' ps' : list str),
  frags_ok rs -> frags_ok ps -> frags_ok rs' -> frags_ok ps' ->
  Forall2 (fun f f' => canon f = canon f') rs rs' -> Forall2 (fun f f' => canon f = canon f') ps ps' ->
  standardize_rsmi canon (rsmi_of rs ps) = standardize_rsmi canon (rsmi_of rs' ps').
Proof. exact standardize_rewriting. Qed.
Print Assumptions C09_standardize_rewriting.

(** idempotence for EVERY input string, relative to the writer contract (explicit premise about RDKit, monitored by the
    oracle clause standardize-idempotent on every run): a written fragment is read back and written as itself, and
    contains neither '.' nor '>' *)
Theorem C09_standardize_idempotent : forall (canon : str -> option str) (s t : str),
  (forall f c, canon f = Some c -> canon c = Some c /\ nosep DOT c /\ nosep GT c) ->
  standardize_rsmi canon s = SSome t -> standardize_rsmi canon t = SSome t.
Proof. exact standardize_idempotent. Qed.
Print Assumptions C09_standardize_idempotent.

(** shape of the result: exactly two parts, on each side the surviving fragments, sorted, joined; None iff a side has no
    surviving fragment *)
Theorem C09_standardize_shape : forall (canon : str -> option str) (s t : str), standardize_rsmi canon s = SSome t ->
  exists a b, split_gg s = [a; b] /\
    t = join DOT (sort_strs (valid_frags canon a)) ++ GG ++ join DOT (sort_strs (valid_frags canon b)) /\
    valid_frags canon a <> [] /\ valid_frags canon b <> [].
Proof. exact standardize_shape. Qed.
Print Assumptions C09_standardize_shape.

(** Standardize.fit: with remove_aam=False (any ignore_stereo; [canon st] = writer with isomericSmiles = st) the invariances
    of standardize_rsmi carry over; with remove_aam=True (default) the result is a function of the two cleaned sides, so fit
    distinguishes nothing that RDKit's canonical writer of the un-numbered side does not distinguish (atom order, fragment
    order, map numbers: RDKit contract, monitored by the clause standardize-invariant) *)
Theorem C09_std_fit_multiset : forall (clean : str -> option str) (canon : bool -> str -> option str) (ist : bool) (rs ps rs' ps' : list str),
  frags_ok rs -> frags_ok ps -> frags_ok rs' -> frags_ok ps' ->
  Permutation (map (canon (negb ist)) rs) (map (canon (negb ist)) rs') ->
  Permutation (map (canon (negb ist)) ps) (map (canon (negb ist)) ps') ->
  std_fit clean canon false ist (rsmi_of rs ps) = std_fit clean canon false ist (rsmi_of rs' ps').
Proof. exact std_fit_multiset. Qed.
Print Assumptions C09_std_fit_multiset.

Theorem C09_std_fit_default_invariant : forall (clean : str -> option str) (canon : bool -> str -> option str) (ist : bool) (a b a' b' : str),
  nosep GT a -> nosep GT b -> nosep GT a' -> nosep GT b' -> clean a = clean a' -> clean b = clean b' ->
  std_fit clean canon true ist (a ++ GG ++ b) = std_fit clean canon true ist (a' ++ GG ++ b').
Proof. exact std_fit_default_invariant. Qed.
Print Assumptions C09_std_fit_default_invariant.

Theorem C09_std_fit_shape : forall (clean : str -> option str) (canon : bool -> str -> option str) (ra ist : bool) (s u : str),
  std_fit clean canon ra ist s = SSome u ->
  exists s1 t, (if ra then remove_atom_mapping clean s else Some s) = Some s1 /\
               standardize_rsmi (canon (negb ist)) s1 = SSome t /\ u = replace_HH t.
Proof. exact std_fit_shape. Qed.
Print Assumptions C09_std_fit_shape.

(** Standardize.fit is idempotent for EVERY input string and every option combination, relative to two explicit RDKit
    contracts (monitored by the clause standardize-idempotent on every run): the writer contract of one fragment, and
    [side_contract]: a side of a standard form - sorted canonical fragments joined by '.', "[HH]" written "[H][H]" - is read
    back ([reader]: with remove_aam=True through remove_atom_mapping's cleaned side string, which contains no '>') as the same
    fragments.  The model part: replace_HH commutes with the '.' / '>>' structure (proof/C09_StrFit.v), split / join /
    sorted / filter as above. *)
Theorem C09_std_fit_idempotent : forall (clean : str -> option str) (canon : bool -> str -> option str) (ra ist : bool) (s u : str),
  (forall f c, canon (negb ist) f = Some c -> canon (negb ist) c = Some c /\ nosep DOT c /\ nosep GT c) ->
  (forall A : list str, A <> [] -> (forall f, In f A -> exists g, canon (negb ist) g = Some f) ->
     exists B, reader clean (canon (negb ist)) ra (replace_HH (join DOT A)) = Some B /\ Permutation B A) ->
  std_fit clean canon ra ist s = SSome u -> std_fit clean canon ra ist u = SSome u.
Proof. exact std_fit_idempotent. Qed.
Print Assumptions C09_std_fit_idempotent.

(** categorize_reactions: loss-free split; a reaction matches exactly when it IS the standard form of the target *)
Theorem C09_categorize_spec : forall (canon : bool -> str -> option str) (rs : list str) (target : str) (m n : list str),
  categorize canon rs target = Some (m, n) ->
  Permutation (m ++ n) rs /\ (forall r, In r m <-> In r rs /\ standardize_rsmi (canon false) target = SSome r).
Proof. exact categorize_spec. Qed.
Print Assumptions C09_categorize_spec.

(** rsmi_balance_check at string level: on "a>>b" with readable sides the verdict is the equality of the two formula strings
    (CalcMolFormula: oracle; its agreement with element counts + charge is compared on every balance case through
    [run_balance] / C09_balance_iff) *)
Theorem C09_rsmi_balance_check_spec : forall (formula : str -> option str) (a b : str), nosep GT a -> nosep GT b ->
  forall fa fb, formula a = Some fa -> formula b = Some fb ->
  (rsmi_balance_check formula (a ++ GG ++ b) = Some true <-> fa = fb).
Proof. exact rsmi_balance_check_spec. Qed.
Print Assumptions C09_rsmi_balance_check_spec.

(** 6. expand_aam's numbering ([maps] = the map numbers of all atoms, reactant molecules first, 0 = unmapped; compared with the
       atoms of the molecules expand_aam really numbered on every `expand` case): mapped atoms keep their number, the
       k-th unmapped atom gets next_id + k which is larger than every number of the input, strictly increasing. *)
Theorem C09_expand_numbers_spec : forall maps : list Z,
  let out := expand_numbers maps in
  length out = length maps /\
  (forall i, (i < length maps)%nat -> nth i maps 0%Z <> 0%Z -> nth i out 0%Z = nth i maps 0%Z) /\
  (forall i, (i < length maps)%nat -> nth i maps 0%Z = 0%Z ->
     nth i out 0%Z = (next_id maps + zeros (firstn i maps))%Z /\ forall m, In m maps -> (m < nth i out 0%Z)%Z) /\
  (forall i j, (i < j < length maps)%nat -> nth i maps 0%Z = 0%Z -> nth j maps 0%Z = 0%Z -> (nth i out 0%Z < nth j out 0%Z)%Z) /\
  (forall x, In x out -> (forall m, In m maps -> (0 <= m)%Z) -> (0 < x)%Z).
Proof. exact expand_numbers_spec. Qed.
Print Assumptions C09_expand_numbers_spec.

(** per side (this is what makes the premise [parsed] of the canonicaliser theorems true after rsmi_to_graph, which uses the
    map number as node id): every atom has its own positive number when the mapped atoms of the side had pairwise different
    numbers; the sides share exactly the numbers they shared before (an unmapped atom never gets a partner); mapped numbers
    are kept. *)
Theorem C09_expand_sides_spec : forall (rmaps pmaps R P : list Z),
  (forall m, In m (rmaps ++ pmaps) -> (0 <= m)%Z) ->
  expand_sides (length rmaps) (rmaps ++ pmaps) = (R, P) ->
  length R = length rmaps /\ length P = length pmaps /\
  (NoDup (filter nz rmaps) -> NoDup R) /\ (NoDup (filter nz pmaps) -> NoDup P) /\
  (forall x, In x R \/ In x P -> (0 < x)%Z) /\
  (forall x, In x R -> In x P -> In x rmaps /\ In x pmaps /\ x <> 0%Z) /\
  (forall x, x <> 0%Z -> In x rmaps -> In x R) /\ (forall x, x <> 0%Z -> In x pmaps -> In x P).
Proof. exact expand_sides_spec. Qed.
Print Assumptions C09_expand_sides_spec.

(** 7. check_equivariant_graph: the pairs are exactly the index pairs i < j of isomorphic graphs (by C09_validator_exact:
       of graphs isomorphic on typesGH + order), the count is their number, and smiles_check's "count == 1" on two graphs is
       the test of the validator theorems. *)
Theorem C09_check_equivariant_graph_spec : forall gs : list its,
  (forall a b, In (a, b) (fst (check_equivariant_graph gs)) <->
     (a < b < length gs)%nat /\ is_isomorphic (nth a gs its0) (nth b gs its0) = true) /\
  snd (check_equivariant_graph gs) = length (fst (check_equivariant_graph gs)).
Proof. exact check_equivariant_graph_spec. Qed.
Print Assumptions C09_check_equivariant_graph_spec.

Theorem C09_smiles_check_count : forall G1 H1 G2 H2 : mgraph,
  smiles_check_rc G1 H1 G2 H2 = smiles_check_count (get_rc (its_construct G1 H1)) (get_rc (its_construct G2 H2)) /\
  smiles_check_its G1 H1 G2 H2 = smiles_check_count (its_construct G1 H1) (its_construct G2 H2).
Proof. exact smiles_check_rc_count. Qed.
Print Assumptions C09_smiles_check_count.

(** option handling of smiles_check (the function the validator histories evaluate): RC exactly when the
    upper-cased method string is "RC", the full ITS for every other string; an unreadable string gives False *)
Theorem C09_smiles_check_options : forall (m : str) (ia : bool) (G1 H1 G2 H2 : mgraph),
  smiles_check_full m ia (Some (G1, H1)) (Some (G2, H2)) =
  (if is_rc m then smiles_check_rc_o ia G1 H1 G2 H2 else smiles_check_its_o ia G1 H1 G2 H2) /\
  (forall r, smiles_check_full m ia None r = false /\ smiles_check_full m ia r None = false).
Proof. exact smiles_check_full_spec. Qed.
Print Assumptions C09_smiles_check_options.

(** validate_smiles (compared on every `validate` case): per mapper column one verdict per record, in record order, each the
    verdict of smiles_check on (the record's mapped string, the record's ground truth) in THIS argument order with the given
    method / ignore_aromaticity; the count is the number of accepted records *)
Theorem C09_validate_smiles_spec : forall (m : str) (ia : bool) (ncols : nat) (rows : list orow),
  length (validate_smiles m ia ncols rows) = ncols /\
  forall k, (k < ncols)%nat ->
    let c := nth k (validate_smiles m ia ncols rows) ([], 0%nat, 0%nat) in
    length (fst (fst c)) = length rows /\ snd c = length rows /\
    (forall i, (i < length rows)%nat ->
       nth i (fst (fst c)) false = smiles_check_full m ia (nth k (snd (nth i rows (None, []))) None) (fst (nth i rows (None, [])))) /\
    snd (fst c) = length (filter (fun b : bool => b) (fst (fst c))) /\ (snd (fst c) <= snd c)%nat.
Proof. exact validate_smiles_spec. Qed.
Print Assumptions C09_validate_smiles_spec.

(** check_pair with BOTH flags (compared on the `validate` cases flags#n for every combination of the flags): with
    ignore_tautomers=True it is smiles_check on (mapped, truth); otherwise it answers True exactly when the mapping is accepted
    against SOME enumerated tautomer of the truth (the enumeration is RDKit's: oracle input), None when the enumeration failed;
    validate_smiles applies it record by record and column by column with the same method and the same two flags *)
Theorem C09_check_pair_spec : forall (m : str) (ia : bool) (r1 r2 : ograph) (tauts : option (list ograph)),
  check_pair m ia true r1 r2 tauts = Some (smiles_check_full m ia r1 r2) /\
  (forall l, tauts = Some l ->
     exists b, check_pair m ia false r1 r2 tauts = Some b /\
       (b = true <-> exists t, In t l /\ smiles_check_full m ia r1 t = true)) /\
  (tauts = None -> check_pair m ia false r1 r2 tauts = None).
Proof. exact check_pair_spec. Qed.
Print Assumptions C09_check_pair_spec.

Theorem C09_validate_smiles_flags_spec : forall (m : str) (ia it : bool) (ncols : nat) (rows : list orowT),
  length (validate_smiles_t m ia it ncols rows) = ncols /\
  forall k i, (k < ncols)%nat -> (i < length rows)%nat ->
    nth i (nth k (validate_smiles_t m ia it ncols rows) []) None =
    check_pair m ia it (nth k (snd (nth i rows (None, None, []))) None) (fst (fst (nth i rows (None, None, [])))) (snd (fst (nth i rows (None, None, [])))).
Proof. exact validate_smiles_t_spec. Qed.
Print Assumptions C09_validate_smiles_flags_spec.

(** smiles_check with its options is exact at the level of the API call: on two readable strings it answers True exactly when
    the graphs the method string selects, built with the given ignore_aromaticity, are isomorphic on typesGH + order pairs *)
Theorem C09_smiles_check_exact : forall (m : str) (ia : bool) (G1 H1 G2 H2 : mgraph), wf G2 -> wf H2 ->
  (smiles_check_full m ia (Some (G1, H1)) (Some (G2, H2)) = true <->
   if is_rc m
   then its_isomorphic (get_rc (C01_Opts.its_construct_o (vopts ia) G1 H1)) (get_rc (C01_Opts.its_construct_o (vopts ia) G2 H2))
   else its_isomorphic (C01_Opts.its_construct_o (vopts ia) G1 H1) (C01_Opts.its_construct_o (vopts ia) G2 H2)).
Proof. exact smiles_check_exact. Qed.
Print Assumptions C09_smiles_check_exact.

(** ignore_aromaticity does not influence the ITS verdict (the option only changes standard_order, which the matcher never
    compares).  (The RC verdict does depend on it: get_rc selects the centre by standard_order - the aromatic histories show
    both verdicts.)  Every renumbering is accepted by BOTH methods under BOTH values of the option. *)
Theorem C09_its_verdict_ignores_option : forall (ia : bool) (G1 H1 G2 H2 : mgraph), wf G2 -> wf H2 ->
  smiles_check_its_o ia G1 H1 G2 H2 = smiles_check_its G1 H1 G2 H2.
Proof. exact its_verdict_ignores_ia. Qed.
Print Assumptions C09_its_verdict_ignores_option.

Theorem C09_validator_renumbering_options : forall (ia : bool) (f : N -> N) (G H : mgraph),
  (forall a b, f a = f b -> a = b) -> wf G -> wf H ->
  smiles_check_rc_o ia (relabel f G) (relabel f H) G H = true /\ smiles_check_its_o ia (relabel f G) (relabel f H) G H = true.
Proof. exact validator_renumbering_options. Qed.
Print Assumptions C09_validator_renumbering_options.

Theorem C09_renumbering_accepted_its_options : forall (ia : bool) (f : N -> N) (G H : mgraph),
  (forall a b, f a = f b -> a = b) -> wf G -> wf H ->
  smiles_check_its_o ia (relabel f G) (relabel f H) G H = true.
Proof. exact renumbering_accepted_its_o. Qed.
Print Assumptions C09_renumbering_accepted_its_options.

(** FixAAM.fix_aam_rsmi (every map number + 1; [fix_aam_graph], compared with the re-parsed output on every `fixaam` case) is a
    renumbering the validator accepts by both methods *)
Theorem C09_fix_aam_accepted : forall G H : mgraph, wf G -> wf H ->
  smiles_check_its (fix_aam_graph G) (fix_aam_graph H) G H = true /\
  smiles_check_rc (fix_aam_graph G) (fix_aam_graph H) G H = true.
Proof. exact fix_aam_accepted. Qed.
Print Assumptions C09_fix_aam_accepted.

(** CanonRSMI.remap_graph called directly (compared on every `remap` case, both argument forms): ValueError exactly for the
    empty map, KeyError exactly when the mapping names a node that is not in the graph, otherwise the [remap_graph] of the
    canonicaliser theorems (partial and colliding maps allowed) *)
Theorem C09_remap_graph_full_spec : forall (H : mgraph) (pairs : list (N * N)),
  (remap_graph_full H pairs = RValueError <-> pairs = []) /\
  (remap_graph_full H pairs = RKeyError <-> pairs <> [] /\ exists old, In old (map fst (remap_mapping pairs)) /\ ~ In old (node_ids H)) /\
  (forall g, remap_graph_full H pairs = ROk g <->
     remap_graph H pairs = Some g /\ forall old, In old (map fst (remap_mapping pairs)) -> In old (node_ids H)).
Proof. exact remap_graph_full_spec. Qed.
Print Assumptions C09_remap_graph_full_spec.

(** NormalizeAAM.fit, graph-level core (model/C09_Normalize.v; the graphs and the hydrogen list are captured INSIDE the call on
    every `normcore` case; implicit_hydrogen is the model of property C01): both sides are treated with the same list - the
    atom maps of the hydrogens of the reaction centre; those hydrogens stay explicit atoms, any other hydrogen disappears
    exactly when it has a non-hydrogen neighbour, and every other atom keeps its element, aromaticity, charge, neighbours,
    atom_map and its TOTAL number of hydrogens (hcount + explicit hydrogen neighbours) *)
Theorem C09_normalize_core_spec : forall G H : mgraph, wf G -> wf H ->
  fst (normalize_core G H) = implicit_hydrogen G (list_hydrogen G H) /\
  snd (normalize_core G H) = implicit_hydrogen H (list_hydrogen G H) /\
  (forall z, In z (list_hydrogen G H) <->
     exists n a, In (n, a) (gnodes (get_rc (its_construct G H))) /\ i_el a = EL_H /\ z = i_amap a).
Proof. exact normalize_core_spec. Qed.
Print Assumptions C09_normalize_core_spec.

Theorem C09_normalize_side_spec : forall (X : mgraph) (lh : list Z), wf X ->
  (forall h a, label X h = Some a -> is_H a = true -> memZ (g_amap a) lh = true -> label (implicit_hydrogen X lh) h = Some a) /\
  (forall h a, label X h = Some a -> is_H a = true -> memZ (g_amap a) lh = false ->
     label (implicit_hydrogen X lh) h = if has_heavy X h then None else Some a) /\
  (forall n a, label X n = Some a -> is_H a = false ->
     exists a', label (implicit_hydrogen X lh) n = Some a' /\
       (g_hc a' + count_h (implicit_hydrogen X lh) n = g_hc a + count_h X n)%Z /\
       g_el a' = g_el a /\ g_arom a' = g_arom a /\ g_ch a' = g_ch a /\ g_nb a' = g_nb a /\ g_amap a' = g_amap a).
Proof. exact normalize_side_spec. Qed.
Print Assumptions C09_normalize_side_spec.

(** ... and NormalizeAAM.fit does not change whether the reaction is balanced: every element count (hydrogens included) and the
    total charge of both sides are kept - for well-formed sides without bridging hydrogens ([one_parent], C01) whose bonded
    hydrogens are neutral and carry no hydrogens of their own ([h_plain]: always so for RDKit readings).  Uses C01's
    hydrogen_balance. *)
Theorem C09_normalize_keeps_balance : forall G H : mgraph,
  wf G -> wf H -> one_parent G -> one_parent H -> h_plain G -> h_plain H ->
  balancedb (fst (normalize_core G H)) (snd (normalize_core G H)) = balancedb G H.
Proof. exact normalize_keeps_balance. Qed.
Print Assumptions C09_normalize_keeps_balance.

(** NormalizeAAM helpers (compared on every `subgraph` case) *)
Theorem C09_reset_indices_spec : forall G : mgraph, wf G ->
  node_ids (reset_indices G) = map N.of_nat (seq 1 (length (gnodes G))) /\ amap_id (reset_indices G) /\
  exists f, (forall a b, f a = f b -> a = b) /\ reset_indices G = set_amap (relabel f G).
Proof. exact reset_indices_spec. Qed.
Print Assumptions C09_reset_indices_spec.

Theorem C09_reset_indices_by_spec : forall (order : list N) (G : mgraph), wf G -> NoDup order -> (forall n, In n order <-> In n (node_ids G)) ->
  Permutation (node_ids (reset_indices_by order G)) (map N.of_nat (seq 1 (length (gnodes G)))) /\
  amap_id (reset_indices_by order G) /\
  exists f, (forall a b, f a = f b -> a = b) /\ (forall n, In n order -> f n = sigma_of order n) /\
            reset_indices_by order G = set_amap (relabel f G).
Proof. exact reset_indices_by_spec. Qed.
Print Assumptions C09_reset_indices_by_spec.

Theorem C09_extract_subgraph_spec : forall (G : mgraph) (keep : list N), wf G ->
  wf (extract_subgraph G keep) /\
  (forall n, label (extract_subgraph G keep) n = if mem n keep then label G n else None) /\
  (forall a b x, In (a, b, x) (gedges (extract_subgraph G keep)) <-> In (a, b, x) (gedges G) /\ In a keep /\ In b keep).
Proof. exact extract_subgraph_spec. Qed.
Print Assumptions C09_extract_subgraph_spec.

(** BalanceReactionCheck on records (model/C09_Records.v; compared on every `records` case, key ORDER included):
    dict_balance_check stores under "balanced" the verdict of THIS record's reaction - also when the input already carried a
    "balanced" key (repair 7b06bf6) -, keeps every other key, its value and the key order; dicts_balance_check gives one result
    per parsed record, in input order, split loss-free by the verdict; parse_input wraps strings and keeps exactly the dicts
    that have the column *)
Theorem C09_dict_balance_check_spec : forall (formula : str -> option str) (r : record) (col : str) (r' : record),
  dict_balance_check formula r col = Some r' ->
  exists s b, rget col r = Some (VS s) /\ rsmi_balance_check formula s = Some b /\
    rget BALANCED r' = Some (VB b) /\ (forall k, k <> BALANCED -> rget k r' = rget k r) /\
    (map fst r' = map fst r \/ (rget BALANCED r = None /\ map fst r' = map fst r ++ [BALANCED])).
Proof. exact dict_balance_check_spec. Qed.
Print Assumptions C09_dict_balance_check_spec.

Theorem C09_dicts_balance_check_spec : forall (formula : str -> option str) (inp : input) (col : str) (A B : list record),
  dicts_balance_check formula inp col = Some (A, B) ->
  exists rs res, parse_input inp col = Some rs /\
    Forall2 (fun r r' => dict_balance_check formula r col = Some r') rs res /\
    A = filter is_balanced res /\ B = filter (fun r => negb (is_balanced r)) res /\ Permutation (A ++ B) res /\
    (forall r r', In r' res -> dict_balance_check formula r col = Some r' ->
       exists s, rget col r = Some (VS s) /\ rsmi_balance_check formula s = Some (is_balanced r')).
Proof. exact dicts_balance_check_spec. Qed.
Print Assumptions C09_dicts_balance_check_spec.

Theorem C09_parse_input_spec : forall col : str,
  (forall s, parse_input (InStr s) col = Some [[(col, VS s)]]) /\ parse_input InOther col = None /\
  (forall l, exists rs, parse_input (InList l) col = Some rs /\
     forall r, In r rs <-> exists it, In it l /\ ((exists s, it = IStr s /\ r = [(col, VS s)]) \/ (it = IDict r /\ rget col r <> None))).
Proof. exact parse_input_spec. Qed.
Print Assumptions C09_parse_input_spec.

(** string-level balance verdict = graph-level formula, relative to the CalcMolFormula contract for the two sides (explicit
    premise; the agreement is compared on every balance case) *)
Theorem C09_rsmi_balance_check_graph : forall (formula : str -> option str) (a b fa fb : str) (G H : mgraph),
  nosep GT a -> nosep GT b -> formula a = Some fa -> formula b = Some fb ->
  (fa = fb <-> (forall e, el_count e G = el_count e H) /\ total_charge G = total_charge H) ->
  rsmi_balance_check formula (a ++ GG ++ b) = Some (balancedb G H).
Proof. exact rsmi_balance_check_graph. Qed.
Print Assumptions C09_rsmi_balance_check_graph.

(** the instance state of a CanonRSMI object (model/C09_State.v; compared field by field after every `canon` / `props` step of
    the canonicaliser histories, also after failing calls): a call never sees the state left by earlier calls or by the
    caller editing returned objects; after a successful call the properties are exactly the result of canonicalise_with;
    after a failing call (no shared atom map) there is no canonical product graph and mapping_pairs = [] *)
Theorem C09_cstep_fresh : forall (canonG : mgraph -> mgraph) (parsed : option (mgraph * mgraph)) (hist : list (cstate -> cstate)) (st : cstate),
  cstep canonG parsed (fold_left (fun s f => f s) hist st) = cstep canonG parsed cs_init.
Proof. exact (fun canonG parsed hist st => cstep_fresh canonG parsed (fold_left (fun s f => f s) hist st) cs_init). Qed.
Print Assumptions C09_cstep_fresh.

Theorem C09_cstep_done : forall (canonG : mgraph -> mgraph) (G H : mgraph) (st : cstate),
  cs_done (cstep canonG (Some (G, H)) st) = true <->
  exists Gc' prs Hc', canonicalise_with (canonG G) H = Some (Gc', prs, Hc') /\
    cstep canonG (Some (G, H)) st = CS (Some G) (Some H) (Some Gc') (Some prs) (Some Hc') true.
Proof. exact cstep_done. Qed.
Print Assumptions C09_cstep_done.

Theorem C09_cstep_failed : forall (canonG : mgraph -> mgraph) (G H : mgraph) (st : cstate),
  canonicalise_with (canonG G) H = None ->
  cstep canonG (Some (G, H)) st = CS (Some G) (Some H) (Some (canonG G)) (Some []) None false.
Proof. exact cstep_failed. Qed.
Print Assumptions C09_cstep_failed.

(** exactly when CanonRSMI.canonicalise raises ValueError("node_map must be non-empty"): when the two sides share no atom map -
    in particular for a reaction without map numbers (expand_aam numbers all atoms differently, C09_expand_sides_spec) *)
Theorem C09_canonicalise_fails_iff : forall (G H Gc : mgraph) (order : list N),
  parsed G -> parsed H -> enumerates order G -> relabelled_by (sigma_of order) G Gc ->
  (canonicalise_with Gc H = None <-> ~ exists s, In s (node_ids G) /\ In s (node_ids H)).
Proof. exact canonicalise_fails_iff. Qed.
Print Assumptions C09_canonicalise_fails_iff.

(** 8. Numbering / atom-order independence and fixed point of the two back-ends.
       STATUS w.r.t. the property text:
       * independence, back-end nauty: FULL under the text's hypothesis (all reactant atoms distinguishable = [rigid]);
       * independence, back-end wl: proved under the STRONGER hypothesis "pairwise distinct WL colours" (theorems named
         _distinct_colours) and REFUTED under the text's hypothesis: C09_numbering_independent_wl_refuted (known finding
         wl-tied-colours-distinguishable: distinguishable atoms that share their WL colour are ordered by the input numbering);
       * fixed point: the text puts NO condition on it.  wl: proved without any condition on the colours (tied colours
         included) for every parsed presentation of the canonical graphs and at string level (C09_fixed_point_wl,
         C09_canonical_rsmi_fixed_point_wl).  nauty: proved for EVERY reactant graph in section 9
         (C09_fixed_point_nauty, C09_canonical_rsmi_fixed_point_nauty); the theorems named _rigid are special cases.
       Vocabulary (proof/C09_Graph.v, proof/C09_Backends.v):
         [same_graph X Y]   = Permutation (gnodes X) (gnodes Y) /\ Permutation (map nflip (gedges X)) (map nflip (gedges Y)),
                              nflip (u, v, o) = (min u v, max u v, o): the same labelled graph, whatever the order of the atom
                              list, of the bond list and the direction in which each bond is written
         [presents p G G']  = same_graph G' (set_amap (relabel p G)): the parsed graph G' is G with ids renamed by p (atom_map =
                              new id) - what the parser returns for ANY other way of writing the same mapped reaction
         [writer_ok W]      = forall X Y, same_graph X Y -> W X = W Y: contract of graph_to_smi (GraphToMol + RDKit canonical
                              writer): the string is a function of the graph, not of the listing order (explicit premise)
         [reads_back W P X Y] = the parser P (rsmi_to_graph o expand_aam) returns, on the string written for (X, Y), parsed
                              graphs that are (X, Y) up to listing order (explicit premise about RDKit; monitored by the oracle
                              clauses canon-fixed-point / canon-equivalent on every run)
         [canonical_rsmi W r] = W(canonical reactant graph) ++ ">>" ++ W(canonical product graph)  (model/C09_Strings.v).
       The hypothesis on the product atoms WITHOUT reactant partner (p keeps their relative order) cannot be dropped:
       C09_numbering_partnerless_refuted. *)
Theorem C09_numbering_independent_nauty : forall (G H G' H' : mgraph) (p : N -> N),
  parsed G -> parsed H -> (exists s, In s (node_ids G) /\ In s (node_ids H)) ->
  (forall a b, p a = p b -> a = b) ->
  (forall m n, In m (node_ids H) -> ~ In m (node_ids G) -> In n (node_ids H) -> ~ In n (node_ids G) -> (m <= n)%N -> (p m <= p n)%N) ->
  parsed G' -> parsed H' -> presents p G G' -> presents p H H' ->
  C08_Spec.els_ok (to_c08 G) -> rigid (to_c08 G) ->
  exists (pairs1 pairs2 : list (N * N)) (Gc1 Gc2 Hc1 Hc2 : mgraph),
    canonicalise_nauty G H = Some (Gc1, pairs1, Hc1) /\
    canonicalise_nauty G' H' = Some (Gc2, pairs2, Hc2) /\
    same_graph Gc2 Gc1 /\ same_graph Hc2 Hc1.
Proof. exact numbering_independent_nauty_sg. Qed.
Print Assumptions C09_numbering_independent_nauty.

Theorem C09_numbering_independent_wl_distinct_colours : forall (ranks1 ranks2 : list (N * Z)) (G H G' H' : mgraph) (p : N -> N),
  parsed G -> parsed H -> (exists s, In s (node_ids G) /\ In s (node_ids H)) ->
  (forall a b, p a = p b -> a = b) ->
  (forall m n, In m (node_ids H) -> ~ In m (node_ids G) -> In n (node_ids H) -> ~ In n (node_ids G) -> (m <= n)%N -> (p m <= p n)%N) ->
  parsed G' -> parsed H' -> presents p G G' -> presents p H H' ->
  (forall n, In n (node_ids G) -> C08_Model.rank_of ranks2 (p n) = C08_Model.rank_of ranks1 n) -> ranks_distinct ranks1 G ->
  exists (pairs1 pairs2 : list (N * N)) (Gc1 Gc2 Hc1 Hc2 : mgraph),
    canonicalise_wl ranks1 G H = Some (Gc1, pairs1, Hc1) /\
    canonicalise_wl ranks2 G' H' = Some (Gc2, pairs2, Hc2) /\
    same_graph Gc2 Gc1 /\ same_graph Hc2 Hc1.
Proof. exact numbering_independent_wl_sg. Qed.
Print Assumptions C09_numbering_independent_wl_distinct_colours.

(** fixed point: EVERY parsed presentation (G', H') of the canonical graphs - in particular what the parser returns for the
    canonical string - is canonicalised to the canonical graphs again *)
Theorem C09_fixed_point_nauty_rigid : forall G H : mgraph,
  parsed G -> parsed H -> (exists s, In s (node_ids G) /\ In s (node_ids H)) ->
  C08_Spec.els_ok (to_c08 G) -> rigid (to_c08 G) ->
  exists (pairs1 : list (N * N)) (Gc1 Hc1 : mgraph),
    canonicalise_nauty G H = Some (Gc1, pairs1, Hc1) /\
    forall (G' H' : mgraph), parsed G' -> parsed H' -> same_graph G' Gc1 -> same_graph H' Hc1 ->
      exists (pairs2 : list (N * N)) (Gc2 Hc2 : mgraph),
        canonicalise_nauty G' H' = Some (Gc2, pairs2, Hc2) /\ same_graph Gc2 Gc1 /\ same_graph Hc2 Hc1.
Proof. exact (fun G H PG PH Hs _ _ => fixed_point_nauty_sg G H PG PH Hs). Qed.
Print Assumptions C09_fixed_point_nauty_rigid.

Theorem C09_fixed_point_wl_distinct_colours : forall (ranks1 : list (N * Z)) (G H : mgraph),
  parsed G -> parsed H -> (exists s, In s (node_ids G) /\ In s (node_ids H)) -> ranks_distinct ranks1 G ->
  exists (pairs1 : list (N * N)) (Gc1 Hc1 : mgraph),
    canonicalise_wl ranks1 G H = Some (Gc1, pairs1, Hc1) /\
    forall (ranks2 : list (N * Z)) (G' H' : mgraph), parsed G' -> parsed H' -> same_graph G' Gc1 -> same_graph H' Hc1 ->
      (forall n, In n (node_ids G) -> C08_Model.rank_of ranks2 (sigma_of (wl_order ranks1 G) n) = C08_Model.rank_of ranks1 n) ->
      exists (pairs2 : list (N * N)) (Gc2 Hc2 : mgraph),
        canonicalise_wl ranks2 G' H' = Some (Gc2, pairs2, Hc2) /\ same_graph Gc2 Gc1 /\ same_graph Hc2 Hc1.
Proof. exact (fun ranks1 G H PG PH Hs _ => fixed_point_wl_ties_sg ranks1 G H PG PH Hs). Qed.
Print Assumptions C09_fixed_point_wl_distinct_colours.

(** STRING level: CanonRSMI.canonical_rsmi.  "does not depend on the input's numbering or atom order" and "is a fixed point
    of the canonicaliser", relative to the two RDKit contracts (explicit premises [writer_ok], [reads_back]) - and, for wl,
    to networkx's contract that WL colours correspond under renaming (the [rank_of] premises; colours are oracle inputs). *)
Theorem C09_canonical_rsmi_independent_nauty : forall (W : mgraph -> str) (G H G' H' : mgraph) (p : N -> N),
  writer_ok W ->
  parsed G -> parsed H -> (exists s, In s (node_ids G) /\ In s (node_ids H)) ->
  (forall a b, p a = p b -> a = b) ->
  (forall m n, In m (node_ids H) -> ~ In m (node_ids G) -> In n (node_ids H) -> ~ In n (node_ids G) -> (m <= n)%N -> (p m <= p n)%N) ->
  parsed G' -> parsed H' -> presents p G G' -> presents p H H' ->
  C08_Spec.els_ok (to_c08 G) -> rigid (to_c08 G) ->
  exists s, canonical_rsmi W (canonicalise_nauty G H) = Some s /\ canonical_rsmi W (canonicalise_nauty G' H') = Some s.
Proof. exact canonical_rsmi_independent_nauty. Qed.
Print Assumptions C09_canonical_rsmi_independent_nauty.

Theorem C09_canonical_rsmi_independent_wl_distinct_colours : forall (W : mgraph -> str) (ranks1 ranks2 : list (N * Z)) (G H G' H' : mgraph) (p : N -> N),
  writer_ok W ->
  parsed G -> parsed H -> (exists s, In s (node_ids G) /\ In s (node_ids H)) ->
  (forall a b, p a = p b -> a = b) ->
  (forall m n, In m (node_ids H) -> ~ In m (node_ids G) -> In n (node_ids H) -> ~ In n (node_ids G) -> (m <= n)%N -> (p m <= p n)%N) ->
  parsed G' -> parsed H' -> presents p G G' -> presents p H H' ->
  (forall n, In n (node_ids G) -> C08_Model.rank_of ranks2 (p n) = C08_Model.rank_of ranks1 n) -> ranks_distinct ranks1 G ->
  exists s, canonical_rsmi W (canonicalise_wl ranks1 G H) = Some s /\ canonical_rsmi W (canonicalise_wl ranks2 G' H') = Some s.
Proof. exact canonical_rsmi_independent_wl. Qed.
Print Assumptions C09_canonical_rsmi_independent_wl_distinct_colours.

Theorem C09_canonical_rsmi_fixed_point_nauty_rigid : forall (W : mgraph -> str) (P : str -> option (mgraph * mgraph)) (G H : mgraph),
  writer_ok W ->
  parsed G -> parsed H -> (exists s, In s (node_ids G) /\ In s (node_ids H)) ->
  C08_Spec.els_ok (to_c08 G) -> rigid (to_c08 G) ->
  (forall Gc1 pairs1 Hc1, canonicalise_nauty G H = Some (Gc1, pairs1, Hc1) -> reads_back W P Gc1 Hc1) ->
  exists s G' H', canonical_rsmi W (canonicalise_nauty G H) = Some s /\ P s = Some (G', H') /\
                  canonical_rsmi W (canonicalise_nauty G' H') = Some s.
Proof. exact (fun W P G H HW PG PH Hs _ _ => canonical_rsmi_fixed_point_nauty_all W P G H HW PG PH Hs). Qed.
Print Assumptions C09_canonical_rsmi_fixed_point_nauty_rigid.

Theorem C09_canonical_rsmi_fixed_point_wl_distinct_colours : forall (W : mgraph -> str) (P : str -> option (mgraph * mgraph)) (ranks1 : list (N * Z)) (G H : mgraph),
  writer_ok W ->
  parsed G -> parsed H -> (exists s, In s (node_ids G) /\ In s (node_ids H)) -> ranks_distinct ranks1 G ->
  (forall Gc1 pairs1 Hc1, canonicalise_wl ranks1 G H = Some (Gc1, pairs1, Hc1) -> reads_back W P Gc1 Hc1) ->
  exists s G' H', canonical_rsmi W (canonicalise_wl ranks1 G H) = Some s /\ P s = Some (G', H') /\
    forall ranks2 : list (N * Z),
      (forall n, In n (node_ids G) -> C08_Model.rank_of ranks2 (sigma_of (wl_order ranks1 G) n) = C08_Model.rank_of ranks1 n) ->
      canonical_rsmi W (canonicalise_wl ranks2 G' H') = Some s.
Proof. exact (fun W P ranks1 G H HW PG PH Hs _ => canonical_rsmi_fixed_point_wl_ties W P ranks1 G H HW PG PH Hs). Qed.
Print Assumptions C09_canonical_rsmi_fixed_point_wl_distinct_colours.

(** back-end wl is NOT numbering independent under the text's hypothesis (known finding
    wl-tied-colours-distinguishable; regress corpus wl_tied_colours.json replays it on the implementation): 1-bromononane +
    hydroxide, all reactant atoms distinguishable (the nauty search ends with exactly ONE minimal leaf: no non-trivial
    automorphism, C08_Auts.nauty_auts_complete), every product atom has a reactant partner, the WL colours of the two
    presentations correspond - but the mid-chain atoms 5 and 6 share their colour after the default 3 rounds, so exchanging
    their numbers exchanges their canonical ids: the canonical reactant graphs differ, while back-end nauty returns the same
    graphs for both presentations. *)
Theorem C09_numbering_independent_wl_refuted :
  exists (ranks1 ranks2 : list (N * Z)) (G H G' H' : mgraph) (p : N -> N),
    parsed G /\ parsed H /\ parsed G' /\ parsed H' /\ (exists s, In s (node_ids G) /\ In s (node_ids H)) /\
    (forall a b, p a = p b -> a = b) /\ presents p G G' /\ presents p H H' /\
    (forall n, In n (node_ids G) -> C08_Model.rank_of ranks2 (p n) = C08_Model.rank_of ranks1 n) /\
    length (snd (C08_Model.nauty_acc (to_c08 G))) = 1%nat /\
    (forall n, In n (node_ids H) -> In n (node_ids G)) /\
    exists Gc1 pr1 Hc1 Gc2 pr2 Hc2 Nc1 qr1 Mc1 Nc2 qr2 Mc2,
      canonicalise_wl ranks1 G H = Some (Gc1, pr1, Hc1) /\ canonicalise_wl ranks2 G' H' = Some (Gc2, pr2, Hc2) /\
      ~ same_graph Gc2 Gc1 /\
      canonicalise_nauty G H = Some (Nc1, qr1, Mc1) /\ canonicalise_nauty G' H' = Some (Nc2, qr2, Mc2) /\
      same_graph Nc2 Nc1 /\ same_graph Mc2 Mc1.
Proof. exact numbering_independent_wl_refuted. Qed.
Print Assumptions C09_numbering_independent_wl_refuted.

(** fixed point for back-end wl WITHOUT the hypothesis of distinct colours: after the first run the node ids
    of the canonical reactant graph ARE the positions in the (colour, degree, id) order, so - when the colours of the second
    run correspond (networkx contract: premise) - the second stable sort is the identity also with TIED colours (a sorted list
    is a fixed point of the sort), and since the sort key (colour, degree, id) is total on distinct ids the order does not
    depend on how the atoms / bonds of the re-parsed graph are listed: the statement holds for EVERY parsed presentation of
    the canonical graphs.  This is the text's unconditional fixed-point clause for wl (the theorems _distinct_colours above are
    special cases).  For nauty: section 9. *)
Theorem C09_fixed_point_wl : forall (ranks1 : list (N * Z)) (G H : mgraph),
  parsed G -> parsed H -> (exists s, In s (node_ids G) /\ In s (node_ids H)) ->
  exists (pairs1 : list (N * N)) (Gc1 Hc1 : mgraph),
    canonicalise_wl ranks1 G H = Some (Gc1, pairs1, Hc1) /\
    forall (ranks2 : list (N * Z)) (G' H' : mgraph), parsed G' -> parsed H' -> same_graph G' Gc1 -> same_graph H' Hc1 ->
      (forall n, In n (node_ids G) -> C08_Model.rank_of ranks2 (sigma_of (wl_order ranks1 G) n) = C08_Model.rank_of ranks1 n) ->
      exists (pairs2 : list (N * N)) (Gc2 Hc2 : mgraph),
        canonicalise_wl ranks2 G' H' = Some (Gc2, pairs2, Hc2) /\ same_graph Gc2 Gc1 /\ same_graph Hc2 Hc1.
Proof. exact fixed_point_wl_ties_sg. Qed.
Print Assumptions C09_fixed_point_wl.

(** ... and at string level: CanonRSMI(backend="wl").canonical_rsmi is a fixed point - tied colours included - relative to the
    two RDKit contracts and the correspondence of the colours of the second run (networkx) *)
Theorem C09_canonical_rsmi_fixed_point_wl : forall (W : mgraph -> str) (P : str -> option (mgraph * mgraph)) (ranks1 : list (N * Z)) (G H : mgraph),
  writer_ok W ->
  parsed G -> parsed H -> (exists s, In s (node_ids G) /\ In s (node_ids H)) ->
  (forall Gc1 pairs1 Hc1, canonicalise_wl ranks1 G H = Some (Gc1, pairs1, Hc1) -> reads_back W P Gc1 Hc1) ->
  exists s G' H', canonical_rsmi W (canonicalise_wl ranks1 G H) = Some s /\ P s = Some (G', H') /\
    forall ranks2 : list (N * Z),
      (forall n, In n (node_ids G) -> C08_Model.rank_of ranks2 (sigma_of (wl_order ranks1 G) n) = C08_Model.rank_of ranks1 n) ->
      canonical_rsmi W (canonicalise_wl ranks2 G' H') = Some s.
Proof. exact canonical_rsmi_fixed_point_wl_ties. Qed.
Print Assumptions C09_canonical_rsmi_fixed_point_wl.

(** the canonical graphs are parsed graphs themselves (distinct positive ids, atom_map = id), for every canonical order *)
Theorem C09_canonical_graphs_parsed : forall (G H Gc1 : mgraph) (order1 : list N),
  parsed G -> parsed H -> (exists s, In s (node_ids G) /\ In s (node_ids H)) ->
  enumerates order1 G -> relabelled_by (sigma_of order1) G Gc1 ->
  exists pairs1 Gc1' Hc1', canonicalise_with Gc1 H = Some (Gc1', pairs1, Hc1') /\ parsed Gc1' /\ parsed Hc1'.
Proof. exact canonical_graphs_parsed. Qed.
Print Assumptions C09_canonical_graphs_parsed.

(** 9. The nauty fixed point for EVERY reactant graph (no hypothesis on its automorphisms; proof/C09_NautyFix.v,
       proof/C09_NautyFix2.v).  Why the code's tie-breaking makes the second run the identity: the canonical reactant graph is
       numbered by the best leaf of the first search; its search tree is the image of the first tree; on the path to the
       identity order the target cell at depth j contains no individualised atom - only ids > j - and it contains j + 1, so
       (children are visited in increasing atom_map = id) the identity order 1..N is the FIRST leaf of the depth-first
       enumeration; its label is the minimal one and [visit] replaces the best leaf only by a strictly smaller label.  Hence
       the second run renames nothing: not merely "equal up to an automorphism of the canonical reactant graph" but EQUAL -
       which matters, because an automorphism of the reactant graph need not be one of the product graph. *)
Theorem C09_nauty_second_order : forall (G G' : mgraph) (f1 : N -> N),
  wf G -> (forall a b, f1 a = f1 b -> a = b) ->
  (forall n, In n (node_ids G) -> f1 n = sigma_of (nauty_order G) n) ->
  parsed G' -> presents f1 G G' ->
  nauty_order G' = map f1 (nauty_order G).
Proof. exact nauty_order_after. Qed.
Print Assumptions C09_nauty_second_order.

(** fixed point, graph level: every parsed presentation (G', H') of the canonical graphs - in particular what the parser
    returns for the canonical string - gets the canonical order 1..N and is canonicalised to the canonical graphs again.
    Supersedes C09_fixed_point_nauty_rigid (no [rigid], no [els_ok]). *)
Theorem C09_fixed_point_nauty : forall G H : mgraph,
  parsed G -> parsed H -> (exists s, In s (node_ids G) /\ In s (node_ids H)) ->
  exists (pairs1 : list (N * N)) (Gc1 Hc1 : mgraph),
    canonicalise_nauty G H = Some (Gc1, pairs1, Hc1) /\
    forall (G' H' : mgraph), parsed G' -> parsed H' -> same_graph G' Gc1 -> same_graph H' Hc1 ->
      nauty_order G' = map N.of_nat (seq 1 (length (gnodes G))) /\
      exists (pairs2 : list (N * N)) (Gc2 Hc2 : mgraph),
        canonicalise_nauty G' H' = Some (Gc2, pairs2, Hc2) /\ same_graph Gc2 Gc1 /\ same_graph Hc2 Hc1.
Proof. exact fixed_point_nauty_all. Qed.
Print Assumptions C09_fixed_point_nauty.

(** ... and at string level: CanonRSMI(backend="nauty").canonical_rsmi is a fixed point of the canonicaliser for every
    reaction, relative to the two RDKit contracts [writer_ok] / [reads_back] only.  With C09_canonical_rsmi_fixed_point_wl
    this is the text's unconditional fixed-point clause for both back-ends of the quantifier. *)
Theorem C09_canonical_rsmi_fixed_point_nauty : forall (W : mgraph -> str) (P : str -> option (mgraph * mgraph)) (G H : mgraph),
  writer_ok W ->
  parsed G -> parsed H -> (exists s, In s (node_ids G) /\ In s (node_ids H)) ->
  (forall Gc1 pairs1 Hc1, canonicalise_nauty G H = Some (Gc1, pairs1, Hc1) -> reads_back W P Gc1 Hc1) ->
  exists s G' H', canonical_rsmi W (canonicalise_nauty G H) = Some s /\ P s = Some (G', H') /\
                  canonical_rsmi W (canonicalise_nauty G' H') = Some s.
Proof. exact canonical_rsmi_fixed_point_nauty_all. Qed.
Print Assumptions C09_canonical_rsmi_fixed_point_nauty.
