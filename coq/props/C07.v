(** C07 — property theorems.  Statements in full; every proof is [exact] of lemmas of proof/C07_*.v.

    Vocabulary (the definitions of proof/C07_Spec.v):
      gwf g                      simple undirected graph: distinct node ids, edges join two distinct nodes, each unordered pair stored once
      emb ind nm em H P f        f maps the nodes of the pattern P injectively to nodes of the host H, nm(host attrs, pattern attrs)
                                 holds on every node, every pattern edge lies on a host edge with em(host edge, pattern edge), and
                                 (ind = true) every pattern non-edge lies on a host non-edge
      contained ind nm em H P    exists f, emb ind nm em H P f
      iso_map nm em G1 G2 f      emb true nm em G1 G2 f and f is onto the nodes of G1 (a bijection preserving adjacency both ways)
      mapping_valid .. H P m     m : list (pattern node, host node) has exactly the pattern's nodes as keys, once each, and is an emb
      vf2b_contract / enum_contract   what is assumed of networkx VF2 (decides containment / enumerates only valid embeddings and
                                 at least one when contained); monitored by the harness on every case against lib/Mono.v
      cache_inv gs c             every entry (graph index, node_attrs) of the WL cache c holds wl1_hash node_attrs (that graph)
                                 (proof/C07_History.v; holds for [] and is preserved by every query — C07_no_history)
    The comparators of the engine: C07_comparators (selected attributes equal, hcount host >= pattern). *)
From Coq Require Import List NArith Bool.
From SK Require Import lib.Tok lib.LGraph lib.Mono lib.Reach model.C07_Model model.C07_MCCS
  proof.C07_Spec proof.C07_History proof.C07_Filters proof.C07_Main proof.C07_WL proof.C07_Relabel proof.C07_Final proof.C07_Extra proof.C07_Final2
  proof.C07_Entry proof.C07_MCCS proof.C07_Cache proof.C07_More proof.C07_QPF.
Import ListNotations.

(** the premises are satisfiable, and the instances the correspondence run evaluates ([run] = [run_from has_mono (monos_g true)])
    satisfy them: every theorem below applies to what is compared with the implementation *)
Theorem C07_contracts_hold_for_run : vf2b_contract has_mono /\ enum_contract (monos_g true).
Proof. exact (conj has_mono_contract monos_g_contract). Qed.
Print Assumptions C07_contracts_hold_for_run.

(** the engine's node / edge comparators: selected attributes equal (absent = None), hcount (absent = 0) host >= pattern *)
Theorem C07_comparators : forall e h p,
  (nm_eng e h p = true <-> (forall k, In k (e_na e) -> get k h = get k p) /\ (hc p <= hc h)%N) /\
  (em_eng e h p = true <-> (forall k, In k (e_ea e) -> get k h = get k p)).
Proof. exact comparators. Qed.
Print Assumptions C07_comparators.

(** (1) isomorphic(g_i, g_j) is true exactly when a bijection nodes(g_j) -> nodes(g_i) exists that preserves adjacency both ways,
    the selected node and edge attributes, with hcount(g_i node) >= hcount(g_j node) — for every engine configuration
    (filter on or off), every graph pair and every cache state reachable by earlier queries. *)
Theorem C07_iso_verdict :
  forall vf2b, vf2b_contract vf2b ->
  forall gs e i j c, cache_inv gs c -> gwf (gnth gs i) -> gwf (gnth gs j) ->
    (fst (isomorphic vf2b e i (gnth gs i) j (gnth gs j) c) = true <->
     exists f, iso_map (nm_eng e) (em_eng e) (gnth gs i) (gnth gs j) f).
Proof. exact iso_verdict. Qed.
Print Assumptions C07_iso_verdict.

(** graph_morphism.graph_isomorphism(use_defaults=True): element (default "*"), charge (default 0), order (default 1) *)
Theorem C07_giso_verdict :
  forall vf2b, vf2b_contract vf2b ->
  forall dstar dzero done g1 g2, gwf g1 -> gwf g2 ->
    (giso vf2b dstar dzero done g1 g2 = true <->
     exists f, iso_map (nm_sub [(1%N, dstar); (2%N, dzero)]) (fun h p => N.eqb (getd 4 done h) (getd 4 done p)) g1 g2 f).
Proof. exact giso_spec. Qed.
Print Assumptions C07_giso_verdict.

(** (2a) the verdict is invariant under an injective renaming r of the nodes of either argument
    (gs' is gs with graph i, resp. j, renamed; caches arbitrary but consistent). *)
Theorem C07_relabel_invariant :
  forall vf2b, vf2b_contract vf2b ->
  forall e r gs gs' i j c c', cache_inv gs c -> cache_inv gs' c' -> gwf (gnth gs i) -> gwf (gnth gs j) ->
    (gnth gs' i = grelabel r (gnth gs i) /\ inj_on r (node_ids (gnth gs i)) /\ gnth gs' j = gnth gs j) \/
    (gnth gs' j = grelabel r (gnth gs j) /\ inj_on r (node_ids (gnth gs j)) /\ gnth gs' i = gnth gs i) ->
    fst (isomorphic vf2b e i (gnth gs' i) j (gnth gs' j) c') = fst (isomorphic vf2b e i (gnth gs i) j (gnth gs j) c).
Proof. exact relabel_invariant. Qed.
Print Assumptions C07_relabel_invariant.

(** (2b) symmetric when all hydrogen counts are equal or absent (absent counts as 0) *)
Theorem C07_symmetric :
  forall vf2b, vf2b_contract vf2b ->
  forall e gs i j c c' k, cache_inv gs c -> cache_inv gs c' -> gwf (gnth gs i) -> gwf (gnth gs j) ->
    hc_all k (gnth gs i) -> hc_all k (gnth gs j) ->
    fst (isomorphic vf2b e i (gnth gs i) j (gnth gs j) c) = fst (isomorphic vf2b e j (gnth gs j) i (gnth gs i) c').
Proof. exact symmetric. Qed.
Print Assumptions C07_symmetric.

(** (2b, full strength) symmetric whenever the two graphs carry the same TOTAL hydrogen count ([sum_hc], absent = 0): a graph
    and any relabelled copy, isomers, graphs without annotations, ... — not only graphs whose counts all equal one constant (C07_symmetric
    above is the special case: for equal orders constant counts give equal totals, for different orders both verdicts are False).
    A label-preserving bijection with hcount(pattern) <= hcount(host) everywhere and equal totals has equality everywhere, so its
    inverse is an isomorphism in the other direction.  Example ex_symmetric_sum: CH3-OH vs CH2-O (totals 4 and 2) is not symmetric. *)
Theorem C07_symmetric_equal_totals :
  forall vf2b, vf2b_contract vf2b ->
  forall gs e i j c c', cache_inv gs c -> cache_inv gs c' -> gwf (gnth gs i) -> gwf (gnth gs j) ->
    sum_hc (gnth gs i) = sum_hc (gnth gs j) ->
    fst (isomorphic vf2b e i (gnth gs i) j (gnth gs j) c) = fst (isomorphic vf2b e j (gnth gs j) i (gnth gs i) c').
Proof. exact symmetric_sum. Qed.
Print Assumptions C07_symmetric_equal_totals.

(** (3) the boolean subgraph test (SubgraphMatch.subgraph_isomorphism / is_subgraph / graph_morphism.subgraph_isomorphism) is the
    definition of induced (induced = true) resp. monomorphic (induced = false) containment of child in parent,
    with use_filter on or off, for the default comparators (CEq) and for custom node / edge comparators (nc, ec : accept-all,
    symmetric wildcard, pattern-side wildcard) *)
Theorem C07_subgraph_bool :
  forall vf2b, vf2b_contract vf2b ->
  forall use_filter induced nc ec names eattr child parent, gwf child -> gwf parent ->
    (sub_iso vf2b use_filter induced nc ec names eattr child parent = true <->
     contained induced (nm_subc nc names) (em_subc ec eattr) parent child).
Proof. exact sub_iso_spec. Qed.
Print Assumptions C07_subgraph_bool.

(** (4) get_mappings(host, pattern): every returned dict is a valid pattern->host embedding, and at least one is returned whenever
    the pattern is contained — any sizes, in particular |pattern| < |host| — unless max_mappings = 0 *)
Theorem C07_embeddings :
  forall vf2b enum, vf2b_contract vf2b -> enum_contract enum ->
  forall gs e hi pi c, cache_inv gs c -> gwf (gnth gs hi) -> gwf (gnth gs pi) ->
    (forall m, In m (fst (get_mappings vf2b enum e hi (gnth gs hi) pi (gnth gs pi) c)) ->
               mapping_valid true (nm_eng e) (em_eng e) (gnth gs hi) (gnth gs pi) m) /\
    (contained true (nm_eng e) (em_eng e) (gnth gs hi) (gnth gs pi) -> e_mm e <> Some 0%N ->
     fst (get_mappings vf2b enum e hi (gnth gs hi) pi (gnth gs pi) c) <> []).
Proof. exact embeddings. Qed.
Print Assumptions C07_embeddings.

(** (5a) every pre-filter is a NECESSARY condition for containment: _pre_check (node count, edge count, WL-1 histogram
    containment on equal orders) and the use_filter checks (counts, node-label and edge-label existence).  No VF2 premise. *)
Theorem C07_filters_necessary :
  (forall gs e hi pi c, cache_inv gs c -> gwf (gnth gs hi) -> gwf (gnth gs pi) ->
     contained true (nm_eng e) (em_eng e) (gnth gs hi) (gnth gs pi) ->
     fst (pre_check e hi (gnth gs hi) pi (gnth gs pi) c) = true) /\
  (forall induced nc ec names eattr child parent, gwf child -> gwf parent ->
     contained induced (nm_subc nc names) (em_subc ec eattr) parent child -> sub_filter nc ec names eattr child parent = true).
Proof. exact filters_necessary. Qed.
Print Assumptions C07_filters_necessary.

(** (5b) hence: wl1_filter on/off changes neither the verdict of isomorphic nor the list returned by get_mappings, and use_filter
    on/off does not change the boolean subgraph test *)
Theorem C07_filters_transparent :
  forall vf2b enum, vf2b_contract vf2b -> enum_contract enum ->
  (forall gs e b i j c c', cache_inv gs c -> cache_inv gs c' -> gwf (gnth gs i) -> gwf (gnth gs j) ->
     fst (isomorphic vf2b (set_wl e b) i (gnth gs i) j (gnth gs j) c') = fst (isomorphic vf2b e i (gnth gs i) j (gnth gs j) c)) /\
  (forall gs e b hi pi c c', cache_inv gs c -> cache_inv gs c' -> gwf (gnth gs hi) -> gwf (gnth gs pi) ->
     fst (get_mappings vf2b enum (set_wl e b) hi (gnth gs hi) pi (gnth gs pi) c') =
     fst (get_mappings vf2b enum e hi (gnth gs hi) pi (gnth gs pi) c)) /\
  (forall induced nc ec names eattr child parent, gwf child -> gwf parent ->
     sub_iso vf2b true induced nc ec names eattr child parent = sub_iso vf2b false induced nc ec names eattr child parent).
Proof. exact filters_transparent. Qed.
Print Assumptions C07_filters_transparent.

(** (6) No answer depends on earlier queries.  The engine is a state machine over the class-level WL-histogram cache (keyed by
    graph object AND node_attrs).  For EVERY list of graph objects, EVERY list of engines (arbitrary attribute selections, filter
    flags, limits), EVERY sequence of queries (isomorphic, get_mappings, _pre_check, the boolean subgraph tests,
    graph_isomorphism) and ANY behaviour of VF2 whatsoever, each answer of the history equals the answer a fresh engine gives on
    an empty cache. *)
Theorem C07_no_history :
  forall (vf2b : bool -> (attrs -> attrs -> bool) -> (attrs -> attrs -> bool) -> graph -> graph -> bool)
         (enum : (attrs -> attrs -> bool) -> (attrs -> attrs -> bool) -> graph -> graph -> list mapping)
         (gs : list graph) (es : list engine) (qs : list query),
    run_from vf2b enum gs es qs [] = map (fun q => fst (step vf2b enum gs es q [])) qs.
Proof. exact (fun vf2b enum gs es qs => no_history vf2b enum gs es qs [] (cache_inv_nil gs)). Qed.
Print Assumptions C07_no_history.

(** the same from any consistent cache state, and consistency is preserved by every query *)
Theorem C07_no_history_any_state :
  forall vf2b enum gs es qs c, cache_inv gs c ->
    run_from vf2b enum gs es qs c = map (fun q => fst (step vf2b enum gs es q [])) qs /\
    (forall q, cache_inv gs (snd (step vf2b enum gs es q c))).
Proof. exact (fun vf2b enum gs es qs c Hc => conj (no_history vf2b enum gs es qs c Hc) (fun q => cache_inv_step vf2b enum gs es q c Hc)). Qed.
Print Assumptions C07_no_history_any_state.

(** the cache content the correspondence observes after a history: every entry is the WL-1 histogram of ITS graph under ITS node_attrs *)
Theorem C07_cache_consistent :
  forall vf2b enum gs es qs gi na h,
    cache_get (gi, na) (end_cache vf2b enum gs es qs []) = Some h -> h = wl1_hash na (gnth gs gi).
Proof. exact (fun vf2b enum gs es qs => end_cache_inv vf2b enum gs es qs [] (cache_inv_nil gs)). Qed.
Print Assumptions C07_cache_consistent.

(** graph_morphism.graph_isomorphism without matchers: structure only *)
Theorem C07_giso0_verdict :
  forall vf2b, vf2b_contract vf2b ->
  forall g1 g2, gwf g1 -> gwf g2 ->
    (giso0 vf2b g1 g2 = true <-> exists f, iso_map any_attrs any_attrs g1 g2 f).
Proof. exact giso0_spec. Qed.
Print Assumptions C07_giso0_verdict.

(** graph_morphism.find_graph_isomorphism returns a mapping (not None — possibly the EMPTY mapping for two empty graphs) exactly when
    an isomorphism exists under its matchers (use_defaults: element / atom_map / hcount EQUAL with defaults "*", 0, 0 and order
    equal with default 1; otherwise structure only), with or without the fast invariant check (node count, edge count, sorted
    degree sequence), which is therefore a necessary condition *)
Theorem C07_fgi_verdict :
  forall vf2b, vf2b_contract vf2b ->
  forall use_defaults fast dstar dzero done g1 g2, gwf g1 -> gwf g2 ->
    (fgi vf2b use_defaults fast dstar dzero done g1 g2 = true <->
     exists f, iso_map (fgi_nm use_defaults dstar dzero) (fgi_em use_defaults done) g1 g2 f).
Proof. exact fgi_spec. Qed.
Print Assumptions C07_fgi_verdict.

Theorem C07_fgi_fast_transparent :
  forall vf2b, vf2b_contract vf2b ->
  forall use_defaults dstar dzero done g1 g2, gwf g1 -> gwf g2 ->
    fgi vf2b use_defaults true dstar dzero done g1 g2 = fgi vf2b use_defaults false dstar dzero done g1 g2.
Proof. exact fgi_fast_transparent. Qed.
Print Assumptions C07_fgi_fast_transparent.

(** the enumerator the model run uses lists every embedding once *)
Theorem C07_enum_complete_for_run : enum_complete (monos_g true).
Proof. exact monos_g_complete_contract. Qed.
Print Assumptions C07_enum_complete_for_run.

(** unlimited get_mappings (max_mappings=None) outside the equal-size shortcut returns EVERY embedding of the pattern, none twice
    (premise: VF2 enumerates completely — [enum_complete], proved for the verified enumerator, monitored by comparing mapping sets) *)
Theorem C07_embeddings_complete :
  forall vf2b enum, enum_complete enum ->
  forall gs e hi pi c, cache_inv gs c -> gwf (gnth gs hi) -> gwf (gnth gs pi) ->
    e_mm e = None -> shortcut (gnth gs hi) (gnth gs pi) = false ->
    NoDup (fst (get_mappings vf2b enum e hi (gnth gs hi) pi (gnth gs pi) c)) /\
    (forall f, emb true (nm_eng e) (em_eng e) (gnth gs hi) (gnth gs pi) f ->
       exists m, In m (fst (get_mappings vf2b enum e hi (gnth gs hi) pi (gnth gs pi) c)) /\
                 forall u, In u (node_ids (gnth gs pi)) -> mfun m u = f u).
Proof. exact embeddings_complete. Qed.
Print Assumptions C07_embeddings_complete.

(** max_mappings = k returns exactly the first k mappings of the unlimited result (k >= 1, or outside the shortcut) — any VF2 *)
Theorem C07_max_mappings_slice :
  forall vf2b enum gs e k hi pi c c', cache_inv gs c -> cache_inv gs c' ->
    (shortcut (gnth gs hi) (gnth gs pi) = false \/ (1 <= N.to_nat k)%nat) ->
    fst (get_mappings vf2b enum (set_mm e (Some k)) hi (gnth gs hi) pi (gnth gs pi) c) =
    firstn (N.to_nat k) (fst (get_mappings vf2b enum (set_mm e None) hi (gnth gs hi) pi (gnth gs pi) c')).
Proof. exact max_mappings_slice. Qed.
Print Assumptions C07_max_mappings_slice.

(** histories in which the caller edits graph OBJECTS in place ([run_hist], what [run_h] evaluates): without edits they are ordinary
    histories; engines that do not use the WL filter answer every query like the cache-free functions on the CURRENT graph values
    from any cache state (the class documents that the cache of filtering engines goes stale under in-place mutation —
    example ex_edit_stale); an edit keeps the cache invariant iff the entries of the edited object are right for its new value *)
Theorem C07_hist_no_edits :
  forall vf2b enum gs0 cur es qs c,
    run_hist vf2b enum gs0 cur es (map HQ qs) c = (run_from vf2b enum cur es qs c, end_cache vf2b enum cur es qs c).
Proof. exact hist_no_edits. Qed.
Print Assumptions C07_hist_no_edits.

Theorem C07_edits_wl_off :
  forall vf2b enum gs0 es hs, Forall (fun e => e_wl e = false) es ->
  forall cur c, fst (run_hist vf2b enum gs0 cur es hs c) = hist_pure vf2b enum gs0 cur es hs.
Proof. exact edits_wl_off. Qed.
Print Assumptions C07_edits_wl_off.

Theorem C07_edit_keeps_inv :
  forall gs i g' c, cache_inv gs c ->
    (forall na h, cache_get (i, na) c = Some h -> h = wl1_hash na g') -> (i < length gs)%nat ->
    cache_inv (set_nth gs i g') c.
Proof. exact edit_keeps_inv. Qed.
Print Assumptions C07_edit_keeps_inv.

(** histories in which NEW graph objects appear ([HNew i k]: object i is replaced by a new object holding value k — derived from
    another object of the history with copy() / subgraph().copy() / relabel_nodes / deepcopy and then edited, or built from scratch;
    the old object's entries leave the weak table with it): the cache invariant survives whatever the new value is, and as long as no
    object is edited in place EVERY engine, filtering or not, answers every query like the cache-free functions on the current values *)
Theorem C07_new_objects :
  forall vf2b enum gs0 es hs, no_edits hs ->
  forall cur c, cache_inv cur c -> fst (run_hist vf2b enum gs0 cur es hs c) = hist_pure vf2b enum gs0 cur es hs.
Proof. exact new_objects_harmless. Qed.
Print Assumptions C07_new_objects.

Theorem C07_new_object_keeps_inv :
  forall gs i g' c, cache_inv gs c -> cache_inv (set_nth gs i g') (drop_obj i c).
Proof. exact new_object_keeps_inv. Qed.
Print Assumptions C07_new_object_keeps_inv.

(** the general rule (it contains C07_new_objects above and C07_edit_uncached below, and is the exemption rule of the oracle): a history with
    in-place edits AND new objects answers every query like the cache-free functions on the current values — for every engine — provided
    each in-place edit hits an object that has no cache entry at that moment ([edits_uncached], proof/C07_Extra.v: the cache is threaded
    through the history exactly as [run_hist] threads it) *)
Theorem C07_safe_edits :
  forall vf2b enum gs0 es hs cur c, cache_inv cur c -> edits_uncached vf2b enum gs0 cur es hs c ->
    fst (run_hist vf2b enum gs0 cur es hs c) = hist_pure vf2b enum gs0 cur es hs.
Proof. exact safe_edits_harmless. Qed.
Print Assumptions C07_safe_edits.

(** NOT a clause of the property (its histories contain no edits) but worth stating: for a FILTERING engine an in-place edit leaves
    stale histograms behind and an answer can differ from the cache-free one — the limitation the class documents
    (witness: C-O vs C-[O-] queried, the second object edited into C-O, queried again: False instead of True) *)
Theorem C07_edits_stale_cache_documented : exists gs es hs,
  fst (run_hist has_mono (monos_g true) gs gs es hs []) <> hist_pure has_mono (monos_g true) gs gs es hs.
Proof. exact edit_stale_witness. Qed.
Print Assumptions C07_edits_stale_cache_documented.

(** ... and an in-place edit of an object without cache entries (not yet queried by a filtering engine) is harmless for EVERY engine *)
Theorem C07_edit_uncached :
  forall vf2b enum gs es i g' c qs, cache_inv gs c -> (forall na, cache_get (i, na) c = None) -> (i < length gs)%nat ->
    run_from vf2b enum (set_nth gs i g') es qs c = map (fun q => fst (step vf2b enum (set_nth gs i g') es q [])) qs.
Proof. exact edit_uncached. Qed.
Print Assumptions C07_edit_uncached.

(** (3, as called) The three boolean subgraph entry points — SubgraphMatch.subgraph_isomorphism (FnSM), the facade
    SubgraphMatch.is_subgraph (FnIS), graph_morphism.subgraph_isomorphism (FnGM) — with their options AS THE CALLER PASSES THEM
    ([sub_opts]: parallel name / default lists that the code zips, edge attribute None / "" / a name, check_type as an interned string
    with code 0 = "induced", comparators possibly None, back-end name) answer a boolean whenever [entry_ok] (an edge attribute other
    than None for the two SubgraphMatch functions; back-end "nx" for the facade), and that boolean is the definition of induced
    (check_type == "induced") resp. monomorphic (ANY other string) containment of child in parent under
      the label selection   zip(names, defaults)                                    [o_sel],
      the comparators       the given ones, eq for None; none at all for the facade  [entry_nc / entry_ec],
      the edge attribute    the given name; SubgraphMatch compares "" like any other (absent) name, graph_morphism switches edge
                            matching off for "" and None                              [entry_em]
    with use_filter on or off. *)
Theorem C07_entry_spec :
  forall vf2b, vf2b_contract vf2b ->
  forall fn o child parent, gwf child -> gwf parent -> entry_ok fn o ->
    exists b, sub_entry vf2b fn o child parent = RB b /\
      (b = true <-> contained (o_induced o) (nm_subc (entry_nc fn o) (o_sel o)) (em_subc (entry_ec fn o) (entry_em fn o)) parent child).
Proof. exact entry_spec. Qed.
Print Assumptions C07_entry_spec.

(** (5, as called) use_filter on / off gives the same answer at every entry point for all option values that answer at all *)
Theorem C07_entry_filter_transparent :
  forall vf2b, vf2b_contract vf2b ->
  forall fn o child parent, gwf child -> gwf parent -> entry_ok fn o ->
    sub_entry vf2b fn (set_filter o true) child parent = sub_entry vf2b fn (set_filter o false) child parent.
Proof. exact entry_filter_transparent. Qed.
Print Assumptions C07_entry_filter_transparent.

(** the facade forwards correctly: is_subgraph(backend="nx") IS subgraph_isomorphism with default comparators for every value of
    the remaining options (any VF2); every other back-end name raises — ImportError (2) for the uninstalled "mod" (1), ValueError (3)
    otherwise — and never answers *)
Theorem C07_is_subgraph_facade :
  forall vf2b o pattern host,
    sub_entry vf2b FnIS o pattern host =
    if N.eqb (o_backend o) 0 then sub_entry vf2b FnSM (no_cmps o) pattern host
    else RErr (if N.eqb (o_backend o) 1 then 2 else 3)%N.
Proof. exact is_subgraph_facade. Qed.
Print Assumptions C07_is_subgraph_facade.

(** check_type: every string other than exactly "induced" behaves like "monomorphism" (any VF2, any options) *)
Theorem C07_check_type_spellings :
  forall vf2b fn o ct child parent, ct <> 0%N ->
    sub_entry vf2b fn (set_ctype o ct) child parent = sub_entry vf2b fn (set_ctype o 1%N) child parent.
Proof. exact check_type_spellings. Qed.
Print Assumptions C07_check_type_spellings.

(** the intermediate value the correspondence compares for every boolean subgraph query (was a GraphMatcher built — i.e. did the
    pre-filter let the call through —, and which method decided): no matcher => the answer is False; otherwise the method is
    subgraph_is_isomorphic (2) for check_type "induced" and subgraph_is_monomorphic (4) for everything else *)
Theorem C07_entry_trace :
  forall vf2b fn o child parent, entry_ok fn o ->
    (entry_trace fn o child parent = 0%N -> sub_entry vf2b fn o child parent = RB false) /\
    (entry_trace fn o child parent <> 0%N -> entry_trace fn o child parent = if o_induced o then 2%N else 4%N).
Proof. exact entry_trace_spec. Qed.
Print Assumptions C07_entry_trace.

(** find_graph_isomorphism returns None exactly when its verdict (C07_fgi_verdict) is negative, and a returned mapping has exactly the
    nodes of G1 as keys, once each, and is an isomorphism G1 -> G2: a bijection onto the nodes of G2 preserving adjacency both ways
    and matched by the node / edge matchers ([iso_map] with G2 as host of [mfun m]; the matchers receive (G1 attrs, G2 attrs) as
    networkx hands them over, hence [flip2]).  WHICH isomorphism is VF2's choice: the statement holds for every enumeration order. *)
Theorem C07_fgi_mapping :
  forall vf2b enum, vf2b_contract vf2b -> enum_contract enum ->
  forall use_defaults fast dstar dzero done g1 g2, gwf g1 -> gwf g2 ->
    (fgi_map vf2b enum use_defaults fast dstar dzero done g1 g2 = None <-> fgi vf2b use_defaults fast dstar dzero done g1 g2 = false) /\
    (forall m, fgi_map vf2b enum use_defaults fast dstar dzero done g1 g2 = Some m ->
       NoDup (map fst m) /\ (forall u, In u (map fst m) <-> In u (node_ids g1)) /\
       iso_map (flip2 (fgi_nm use_defaults dstar dzero)) (flip2 (fgi_em use_defaults done)) g2 g1 (mfun m)).
Proof. exact fgi_map_spec. Qed.
Print Assumptions C07_fgi_mapping.

(** intermediate values of isomorphic / get_mappings compared on every query: when the recorded _pre_check answer is False the verdict
    is False / the result list is empty (from any cache state, any VF2) *)
Theorem C07_engine_traces :
  forall vf2b enum e i g1 j g2 c,
    (nth 2 (iso_trace e i g1 j g2 c) 9%N = 0%N -> fst (isomorphic vf2b e i g1 j g2 c) = false) /\
    (nth 0 (maps_trace e i g1 j g2 c) 9%N = 0%N -> fst (get_mappings vf2b enum e i g1 j g2 c) = []).
Proof. exact (fun vf2b enum e i g1 j g2 c => conj (iso_trace_verdict vf2b e i g1 j g2 c) (maps_trace_verdict vf2b enum e i g1 j g2 c)). Qed.
Print Assumptions C07_engine_traces.

(** GraphMatcherEngine.__init__ (what [eng_of], through which every engine of every case is built, evaluates): exactly the
    case-insensitive spellings of "nx" are accepted (omitted = "nx"; with the mod package absent every other name raises ValueError,
    code 3), and the engine carries the normalised options — attribute lists given as None or omitted are empty, wl1_filter is a
    bool (default False), max_mappings defaults to 1 and None means no limit *)
Theorem C07_engine_ctor :
  forall r, (r_backend_lower r = s_nx -> eng_ctor r = inl (ctor_fields r)) /\ (r_backend_lower r <> s_nx -> eng_ctor r = inr 3%N).
Proof. exact eng_ctor_spec. Qed.
Print Assumptions C07_engine_ctor.

(** induced containment implies monomorphic containment, at the entry points: whenever a call with check_type "induced" answers True,
    the same call with any other check_type answers True *)
Theorem C07_induced_implies_mono :
  forall vf2b, vf2b_contract vf2b ->
  forall fn o ct child parent, gwf child -> gwf parent -> entry_ok fn o -> ct <> 0%N ->
    sub_entry vf2b fn (set_ctype o 0%N) child parent = RB true -> sub_entry vf2b fn (set_ctype o ct) child parent = RB true.
Proof. exact entry_induced_implies_mono. Qed.
Print Assumptions C07_induced_implies_mono.

(** (2, helpers) invariance under relabelling and symmetry beyond the engine: every boolean subgraph entry point (raw options) gives
    the same answer when the child or the parent is renamed by any r injective on its nodes ... *)
Theorem C07_entry_relabel_invariant :
  forall vf2b, vf2b_contract vf2b ->
  forall fn o r child parent, gwf child -> gwf parent -> entry_ok fn o ->
    (inj_on r (node_ids child) -> sub_entry vf2b fn o (grelabel r child) parent = sub_entry vf2b fn o child parent) /\
    (inj_on r (node_ids parent) -> sub_entry vf2b fn o child (grelabel r parent) = sub_entry vf2b fn o child parent).
Proof. exact entry_relabel. Qed.
Print Assumptions C07_entry_relabel_invariant.

(** ... graph_isomorphism (with the default matchers and without matchers) and the verdict of find_graph_isomorphism are symmetric in
    their two arguments (their matchers are equalities; no hcount orientation as in the engine) ... *)
Theorem C07_helpers_symmetric :
  forall vf2b, vf2b_contract vf2b ->
  forall g1 g2, gwf g1 -> gwf g2 ->
    (forall a b d, giso vf2b a b d g1 g2 = giso vf2b a b d g2 g1) /\
    giso0 vf2b g1 g2 = giso0 vf2b g2 g1 /\
    (forall ud fast a b d, fgi vf2b ud fast a b d g1 g2 = fgi vf2b ud fast a b d g2 g1).
Proof. exact helpers_symmetric. Qed.
Print Assumptions C07_helpers_symmetric.

(** ... and invariant under an injective renaming of either argument *)
Theorem C07_helpers_relabel_invariant :
  forall vf2b, vf2b_contract vf2b ->
  forall g1 g2 r, gwf g1 -> gwf g2 ->
    (inj_on r (node_ids g1) ->
       (forall a b d, giso vf2b a b d (grelabel r g1) g2 = giso vf2b a b d g1 g2) /\
       giso0 vf2b (grelabel r g1) g2 = giso0 vf2b g1 g2 /\
       (forall ud fast a b d, fgi vf2b ud fast a b d (grelabel r g1) g2 = fgi vf2b ud fast a b d g1 g2)) /\
    (inj_on r (node_ids g2) ->
       (forall a b d, giso vf2b a b d g1 (grelabel r g2) = giso vf2b a b d g1 g2) /\
       giso0 vf2b g1 (grelabel r g2) = giso0 vf2b g1 g2 /\
       (forall ud fast a b d, fgi vf2b ud fast a b d g1 (grelabel r g2) = fgi vf2b ud fast a b d g1 g2)).
Proof. exact helpers_relabel. Qed.
Print Assumptions C07_helpers_relabel_invariant.

(** the two engine entry points agree: on graphs with equally many nodes isomorphic(g_i, g_j) holds exactly when
    get_mappings(g_i, g_j) returns something (max_mappings <> 0), whatever the cache states *)
Theorem C07_iso_maps_consistent :
  forall vf2b enum, vf2b_contract vf2b -> enum_contract enum ->
  forall gs e i j c c', cache_inv gs c -> cache_inv gs c' -> gwf (gnth gs i) -> gwf (gnth gs j) ->
    n_nodes (gnth gs i) = n_nodes (gnth gs j) -> e_mm e <> Some 0%N ->
    (fst (isomorphic vf2b e i (gnth gs i) j (gnth gs j) c) = true <->
     fst (get_mappings vf2b enum e i (gnth gs i) j (gnth gs j) c') <> []).
Proof. exact iso_maps_consistent. Qed.
Print Assumptions C07_iso_maps_consistent.

(** get_mappings returns something EXACTLY when the pattern is contained (max_mappings <> 0): the converse of (4) *)
Theorem C07_embeddings_iff :
  forall vf2b enum, vf2b_contract vf2b -> enum_contract enum ->
  forall gs e hi pi c, cache_inv gs c -> gwf (gnth gs hi) -> gwf (gnth gs pi) -> e_mm e <> Some 0%N ->
    (fst (get_mappings vf2b enum e hi (gnth gs hi) pi (gnth gs pi) c) <> [] <->
     contained true (nm_eng e) (em_eng e) (gnth gs hi) (gnth gs pi)).
Proof. exact embeddings_iff. Qed.
Print Assumptions C07_embeddings_iff.

(** isomorphic never means "is a subgraph of": graphs with different numbers of nodes are not isomorphic, for any engine *)
Theorem C07_iso_unequal_orders :
  forall vf2b, vf2b_contract vf2b ->
  forall gs e i j c, cache_inv gs c -> gwf (gnth gs i) -> gwf (gnth gs j) ->
    n_nodes (gnth gs i) <> n_nodes (gnth gs j) -> fst (isomorphic vf2b e i (gnth gs i) j (gnth gs j) c) = false.
Proof. exact iso_unequal_orders. Qed.
Print Assumptions C07_iso_unequal_orders.

(** argument guards: an engine method handed a non-Graph argument raises TypeError (code 1) before anything else and leaves the cache
    alone; find_graph_isomorphism on two different networkx graph classes answers None (any VF2) *)
Theorem C07_argument_guards :
  forall vf2b enum gs es c,
  (forall mp e i j, (i = None \/ j = None) -> step vf2b enum gs es (QObj mp e i j) c = (L [tN 99; tN 1], c)) /\
  (forall t1 t2 i j ud fa a b d, t1 <> t2 -> step vf2b enum gs es (QFgiT t1 t2 i j ud fa a b d) c = (tbool false, c)).
Proof. exact argument_guards. Qed.
Print Assumptions C07_argument_guards.

(** (2, embeddings) whether get_mappings finds the pattern does not depend on the node numbering of the host or of the pattern *)
Theorem C07_maps_relabel_invariant :
  forall vf2b enum, vf2b_contract vf2b -> enum_contract enum ->
  forall e r gs gs' hi pi c c', cache_inv gs c -> cache_inv gs' c' -> gwf (gnth gs hi) -> gwf (gnth gs pi) -> e_mm e <> Some 0%N ->
    (gnth gs' hi = grelabel r (gnth gs hi) /\ inj_on r (node_ids (gnth gs hi)) /\ gnth gs' pi = gnth gs pi) \/
    (gnth gs' pi = grelabel r (gnth gs pi) /\ inj_on r (node_ids (gnth gs pi)) /\ gnth gs' hi = gnth gs hi) ->
    (fst (get_mappings vf2b enum e hi (gnth gs' hi) pi (gnth gs' pi) c') <> [] <->
     fst (get_mappings vf2b enum e hi (gnth gs hi) pi (gnth gs pi) c) <> []).
Proof. exact maps_relabel_invariant. Qed.
Print Assumptions C07_maps_relabel_invariant.

(** a non-empty get_mappings result implies that _pre_check passes on the same arguments (any cache states) *)
Theorem C07_maps_implies_pre_check :
  forall vf2b enum gs e hi pi c c', cache_inv gs c -> cache_inv gs c' -> gwf (gnth gs hi) -> gwf (gnth gs pi) ->
    fst (get_mappings vf2b enum e hi (gnth gs hi) pi (gnth gs pi) c) <> [] -> fst (pre_check e hi (gnth gs hi) pi (gnth gs pi) c') = true.
Proof. exact maps_implies_pre_check. Qed.
Print Assumptions C07_maps_implies_pre_check.

(** isomorphic is a preorder on graphs for every engine and all cache states: reflexive, and transitive (with C07_symmetric: an
    equivalence on graphs whose hydrogen counts are equal or absent) *)
Theorem C07_iso_preorder :
  forall vf2b, vf2b_contract vf2b ->
  forall gs e,
  (forall i c, cache_inv gs c -> gwf (gnth gs i) -> fst (isomorphic vf2b e i (gnth gs i) i (gnth gs i) c) = true) /\
  (forall i j k c1 c2 c3, cache_inv gs c1 -> cache_inv gs c2 -> cache_inv gs c3 -> gwf (gnth gs i) -> gwf (gnth gs j) -> gwf (gnth gs k) ->
     fst (isomorphic vf2b e i (gnth gs i) j (gnth gs j) c1) = true -> fst (isomorphic vf2b e j (gnth gs j) k (gnth gs k) c2) = true ->
     fst (isomorphic vf2b e i (gnth gs i) k (gnth gs k) c3) = true).
Proof. exact iso_preorder. Qed.
Print Assumptions C07_iso_preorder.

(** (6, the state itself) the class-level cache as the correspondence observes it after EVERY query ([cache_trace]): a query never
    removes a key and adds only keys whose attribute selection is the node_attrs of a FILTERING engine of the case; hence after any
    history from the empty cache every key belongs to a filtering engine, and the observed key sets form an increasing chain (any VF2) *)
Theorem C07_cache_keys :
  forall vf2b enum gs es,
  (forall q c, incl (keys c) (keys (snd (step vf2b enum gs es q c))) /\
               (forall k, In k (keys (snd (step vf2b enum gs es q c))) -> In k (keys c) \/ key_of_filtering_engine es k)) /\
  (forall qs k, In k (keys (end_cache vf2b enum gs es qs [])) -> key_of_filtering_engine es k) /\
  (forall qs c n k1 k2, nth_error (cache_trace vf2b enum gs es qs c) n = Some k1 ->
                        nth_error (cache_trace vf2b enum gs es qs c) (S n) = Some k2 -> incl k1 k2).
Proof.
  exact (fun vf2b enum gs es => conj (step_keys vf2b enum gs es)
    (conj (fun qs => end_cache_keys vf2b enum gs es qs [] (keys_nil es)) (cache_trace_chain vf2b enum gs es))).
Qed.
Print Assumptions C07_cache_keys.

(** ... and exactly WHEN it is written: _pre_check touches the cache iff the engine filters, the two graphs have equally many nodes
    and the host has at least the pattern's number of edges — then both (graph, node_attrs) entries are present afterwards; in every
    other case the cache is returned unchanged *)
Theorem C07_cache_writes :
  forall e hi H pi P c,
  (e_wl e = true /\ n_nodes H = n_nodes P /\ n_edges P <= n_edges H ->
     In (hi, e_na e) (keys (snd (pre_check e hi H pi P c))) /\ In (pi, e_na e) (keys (snd (pre_check e hi H pi P c)))) /\
  (~ (e_wl e = true /\ n_nodes H = n_nodes P /\ n_edges P <= n_edges H) -> snd (pre_check e hi H pi P c) = c).
Proof. exact pre_check_writes. Qed.
Print Assumptions C07_cache_writes.

(** The common-subgraph helpers of graph_morphism.py
    (outside the clauses of the property text; modelled, compared and proved because they are built from the same matcher calls)

    Vocabulary (proof/C07_MCCS.v): [reach g s x] = x is reachable from s along edges ([Reach.conn] over [nbrs]);
    [all_connected g] = every node is reachable from every node; [induced_sub small S] = the subgraph of [small] induced by the
    node list S; [mccs_pick g1 g2] = (smaller, larger) — graph_1 counts as the smaller one when the node counts are equal. *)

(** maximum_connected_common_subgraph(g1, g2, names, defaults, edge_attribute): the result
    (a) is the subgraph of the smaller input induced by a duplicate-free set S of its nodes (|S| = number of nodes of the result; the
        empty graph for S = []),
    (b) has at most one node or is connected,
    (c) occurs as an INDUCED subgraph of the larger input under the matchers (selected node labels with defaults equal, edge
        attribute with default 1 equal),
    (d) and is maximal: no duplicate-free node set S' of the smaller input whose induced subgraph is connected (or a single node) and
        occurs in the larger input has more nodes. *)
Theorem C07_mccs :
  forall vf2b, vf2b_contract vf2b ->
  forall names defaults eattr done g1 g2, gwf g1 -> gwf g2 ->
  let small := fst (mccs_pick g1 g2) in let large := snd (mccs_pick g1 g2) in
  let nm := mccs_nm names defaults in let em := mccs_em eattr done in
  let r := mccs vf2b names defaults eattr done g1 g2 in
  (exists S, NoDup S /\ incl S (node_ids small) /\ r = induced_sub small S /\ n_nodes r = length S) /\
  (n_nodes r <= 1 \/ all_connected r) /\
  contained true nm em large r /\
  (forall S', NoDup S' -> incl S' (node_ids small) ->
     (n_nodes (induced_sub small S') <= 1 \/ all_connected (induced_sub small S')) ->
     contained true nm em large (induced_sub small S') -> length S' <= n_nodes r).
Proof. exact mccs_spec. Qed.
Print Assumptions C07_mccs.

(** the SIZE of the result does not depend on the argument order (the matchers of the code are equalities, hence symmetric); for
    graphs of different orders the two calls return the same graph, for equal orders the node ids come from the first argument *)
Theorem C07_mccs_size_symmetric :
  forall vf2b, vf2b_contract vf2b ->
  forall names defaults eattr done g1 g2, gwf g1 -> gwf g2 ->
    n_nodes (mccs vf2b names defaults eattr done g1 g2) = n_nodes (mccs vf2b names defaults eattr done g2 g1) /\
    (n_nodes g1 <> n_nodes g2 -> mccs vf2b names defaults eattr done g1 g2 = mccs vf2b names defaults eattr done g2 g1).
Proof. exact mccs_size_symmetric. Qed.
Print Assumptions C07_mccs_size_symmetric.

(** the intermediate value compared for every common-subgraph call — the NUMBER of GraphMatcher objects built — follows the search:
    per subset size, [tries_in] reports success exactly when a candidate is found, counts at most one construction per subset and at
    least one when it reports success (any VF2) *)
Theorem C07_mccs_tries :
  forall vf2b nm em larger smaller l,
  (snd (tries_in vf2b nm em larger smaller l) = true <-> first_some (candidate vf2b nm em larger smaller) l <> None) /\
  fst (tries_in vf2b nm em larger smaller l) <= length l /\
  (snd (tries_in vf2b nm em larger smaller l) = true -> 1 <= fst (tries_in vf2b nm em larger smaller l)).
Proof. exact tries_in_spec. Qed.
Print Assumptions C07_mccs_tries.

(** the boolean connectivity test the model evaluates (nx.is_connected on a non-empty candidate) is connectedness *)
Theorem C07_connected_test :
  forall g, gwf g -> node_ids g <> [] -> (connected g = true <-> all_connected g).
Proof. exact connected_spec. Qed.
Print Assumptions C07_connected_test.

(** heuristics_MCCS: [] raises (None), one graph comes back as it is, two graphs give their mccs, more graphs fold from the left and
    stop at the first empty intermediate result (any VF2) *)
Theorem C07_heuristics_mccs :
  forall vf2b names defaults eattr done,
  hmccs vf2b names defaults eattr done [] = None /\
  (forall g, hmccs vf2b names defaults eattr done [g] = Some g) /\
  (forall g1 g2, hmccs vf2b names defaults eattr done [g1; g2] = Some (mccs vf2b names defaults eattr done g1 g2)) /\
  (forall g1 g2 g3 r, hmccs vf2b names defaults eattr done (g1 :: g2 :: g3 :: r) =
     let m := mccs vf2b names defaults eattr done g1 g2 in
     if Nat.eqb (n_nodes m) 0 then Some m else hmccs vf2b names defaults eattr done (m :: g3 :: r)).
Proof. exact hmccs_spec. Qed.
Print Assumptions C07_heuristics_mccs.

(** The third anchored pre-filter, SubgraphSearchEngine._quick_pre_filter
    ([quick_pre_filter]; [find_all na ea thr pf H P] = find_subgraph_mappings(strategy="all", threshold=thr, pre_filter=pf)).

    (5b, REFUTED for this pre-filter) "turning any cheap pre-filter on or off never changes a result set" does NOT hold for it: its
    estimate guard (product of candidate counts > threshold * 1e4) empties results that exist.  Witness: a chain of 6 carbon atoms in a
    chain of 12, element + order, threshold 20: 14 monomorphisms without the pre-filter, [] with it.  Documented behaviour of
    find_subgraph_mappings ("Empty if none or if any guard (pre-filter or enumeration) exceeds the threshold"), kept as it is:
    known finding C07:quick_pre_filter:estimate-guard:chain6-in-chain12 (known_findings.d/C07.json), replayed on the implementation by
    regress case corpus/regress/C07/qpf.json. *)
Theorem C07_quick_pre_filter_refuted : exists na ea thr H P, gwf H /\ gwf P /\
  find_all na ea thr false H P <> [] /\ find_all na ea thr true H P = [].
Proof. exact quick_pre_filter_refuted. Qed.
Print Assumptions C07_quick_pre_filter_refuted.

(** what DOES hold for all inputs: the pre-filter only ever empties a result ... *)
Theorem C07_quick_pre_filter_only_empties :
  forall na ea thr H P, find_all na ea thr true H P = find_all na ea thr false H P \/ find_all na ea thr true H P = [].
Proof. exact quick_pre_filter_only_empties. Qed.
Print Assumptions C07_quick_pre_filter_only_empties.

(** ... and it changes NOTHING whenever the estimate guard does not decide ([qpf_guard] = false): the only other reason for
    _quick_pre_filter to say "skip" is a pattern node without any candidate (selected attributes equal, hcount host >= pattern, degree
    host >= pattern), and then no monomorphism exists — a monomorphism cannot lower a degree *)
Theorem C07_quick_pre_filter_transparent_below_guard :
  forall na ea thr H P, gwf H -> gwf P ->
    qpf_guard na H P thr (node_ids P) 1 = false -> find_all na ea thr true H P = find_all na ea thr false H P.
Proof. exact quick_pre_filter_transparent_below_guard. Qed.
Print Assumptions C07_quick_pre_filter_transparent_below_guard.
