(** C01 — ITS encoding of a mapped reaction is lossless and invertible.
    Statements only; every proof is [exact] of a lemma, or of a conjunction of lemmas, of the files proof/C01_*.v.
    Vocabulary (model/C01_Model.v, lib/LGraph.v):  [wf] = distinct node ids, edges between present distinct
    nodes, one entry per unordered pair;  [same_nodes G H] = equal node-id sets ("atom-balanced");
    [orders_pos] = every stored bond order > 0;  [geq_sel G' G] = same atoms with equal element, aromatic,
    hcount, charge and equal bond maps;  [amap_id] = atom_map is the node id;  orders are half-units. *)
From Coq Require Import String.
From Coq Require Import List NArith ZArith Bool.
From SK Require Import lib.LGraph lib.C01_GraphLemmas model.C01_Model model.C02_Model model.C01_Opts model.C01_String model.C01_Renum model.C01_Attrs model.C01_CleanWc model.C01_Rsmi model.C01_Nbrs model.C01_Rewrite model.C01_Conv model.C01_G2M model.C01_DecRaw model.C01_HBal model.C01_M2GIdx model.C01_Prem model.C01_Builders
  proof.C01_Proof proof.C01_OptsProof proof.C01_StringProof proof.C01_StringHyd proof.C01_StringPipe proof.C01_StringEH proof.C01_StringRenum proof.C01_StringHydExt proof.C01_RenumCentre proof.C01_RenumWrite proof.C01_StringEHwf proof.C01_AttrsProof proof.C01_StringPipeH proof.C01_CleanWcProof proof.C01_RsmiProof proof.C01_NbrsProof proof.C01_RewriteProof proof.C01_ConvProof proof.C01_G2MProof proof.C01_WriteExt proof.C01_RewriteCheck proof.C01_DecRawProof proof.C01_HBalProof proof.C01_HBalString proof.C01_HBalEH proof.C01_M2GIndex proof.C01_ReadWrite proof.C01_HBalW proof.C01_PremProof proof.C01_Capstone proof.C01_ReverseWrite proof.C01_ExtOpts proof.C01_BuildersProof proof.C01_LightProof proof.C01_ZeroOrder proof.C01_M2GGeneral proof.C01_LightGen.
Import ListNotations.
Local Open Scope Z_scope.

(** 1. decompose (construct (G, H)) = (G, H) *)
Theorem C01_roundtrip : forall G H : mgraph,
  wf G -> wf H -> same_nodes G H -> orders_pos G -> orders_pos H ->
  geq_sel (fst (its_decompose (its_construct G H))) G /\ amap_id (fst (its_decompose (its_construct G H))) /\
  geq_sel (snd (its_decompose (its_construct G H))) H /\ amap_id (snd (its_decompose (its_construct G H))).
Proof. exact roundtrip. Qed.
Print Assumptions C01_roundtrip.

(** 2. the ITS has exactly the union of the atoms and bonds; typesGH = the two sides' attribute tuples
       (defaults for a missing side); every bond carries (order in G or 0, order in H or 0) and their
       difference; the result is a well-formed, standard_order-consistent ITS (this is what C02 needs) *)
Theorem C01_union : forall G H : mgraph, wf G -> wf H ->
  let I := its_construct G H in
  (forall n, In n (node_ids I) <-> In n (node_ids G) \/ In n (node_ids H)) /\
  (forall n a, label I n = Some a -> i_G a = side_tuple G n /\ i_H a = side_tuple H n) /\
  (forall u v a b s, adj I u v = Some (IE a b s) <->
      a = order_in G u v /\ b = order_in H u v /\ (adj G u v <> None \/ adj H u v <> None) /\ s = a - b) /\
  std_consistent I /\ wf I.
Proof. exact union. Qed.
Print Assumptions C01_union.

(** 3. construct and decompose commute with every injective renumbering of the node ids
       (its_decompose writes atom_map := node id, hence [set_amap]) *)
Theorem C01_equivariant : forall f : N -> N, (forall a b, f a = f b -> a = b) ->
  forall (G H : mgraph) (I : its),
  its_construct (relabel f G) (relabel f H) = relabel f (its_construct G H) /\
  its_decompose (relabel f I) =
    (set_amap (relabel f (fst (its_decompose I))), set_amap (relabel f (snd (its_decompose I)))).
Proof. exact equivariant. Qed.
Print Assumptions C01_equivariant.

(** 4. "atom-balanced" is necessary: without [same_nodes] the round trip fails
       (an atom present on one side only comes back as a "*" atom on the other side) *)
Theorem C01_one_sided_refuted :
  exists G H : mgraph, wf G /\ wf H /\ orders_pos G /\ orders_pos H /\ ~ same_nodes G H /\
    ~ geq_sel (snd (its_decompose (its_construct G H))) H.
Proof. exact one_sided_refuted. Qed.
Print Assumptions C01_one_sided_refuted.

(** 5. string level, relative to the RDKit contract S1 (first premise): [parse] = rsmi_to_graph,
       [write] = graph_to_rsmi are oracles (modelled, NOT verified; monitored on the corpora).
       FULL CLAIM of the property text, not proved: for RDKit's actual parser and writer,
       its_to_rsmi (rsmi_to_its r) is atom-map-equivalent to r and has the same unmapped sides.
       Missing: S1 itself and totality of [write] (RDKit may refuse a graph) — both only tested. 
        (Theorems 15 / 27 / 32 state the round trip with premises about RDKit alone.) *)
Theorem C01_rsmi_partial : forall (rsmi : Type) (parse : rsmi -> option (mgraph * mgraph))
    (write : mgraph -> mgraph -> its -> option rsmi),
  (forall g h I s, write g h I = Some s ->
     exists g' h', parse s = Some (g', h') /\ geq_sel g' g /\ geq_sel h' h) ->
  forall r G H, parse r = Some (G, H) -> wf G -> wf H -> same_nodes G H -> orders_pos G -> orders_pos H ->
  forall I s, rsmi_to_its parse r = Some I -> its_to_rsmi write I = Some s ->
  exists G' H', parse s = Some (G', H') /\ geq_sel G' G /\ geq_sel H' H.
Proof. exact rsmi_partial. Qed.
Print Assumptions C01_rsmi_partial.

(** ------------------------------------------------------------------------------------------------
    OPTIONS of ITSConstruction.construct / ITSGraph (model/C01_Opts.v): [o_ia] = ignore_aromaticity,
    [o_bal] = balance_its, [o_dflt] = resolved attributes_defaults; [its_construct_o] = store=False,
    [its_construct_S] = store=True (top-level attributes are (G, H) pairs).  [its_construct] is the instance
    [its_construct_o default_opts] (proof/C01_OptsProof.v construct_default, by computation). *)

(** 6. the round trip holds for EVERY option value and both store modes (the order pair stays exact under
       ignore_aromaticity; only standard_order is zeroed) *)
Theorem C01_roundtrip_opts : forall (o : copts) (G H : mgraph),
  wf G -> wf H -> same_nodes G H -> orders_pos G -> orders_pos H ->
  let D := its_decompose (its_construct_o o G H) in
  let DS := its_decompose_S (its_construct_S o G H) in
  (geq_sel (fst D) G /\ amap_id (fst D) /\ geq_sel (snd D) H /\ amap_id (snd D)) /\
  (geq_sel (fst DS) G /\ amap_id (fst DS) /\ geq_sel (snd DS) H /\ amap_id (snd DS)).
Proof. exact roundtrip_opts. Qed.
Print Assumptions C01_roundtrip_opts.

(** 7. union for every option value: node set; typesGH = the two side tuples (with the resolved defaults);
       top-level attributes = the G-side values (store=False) or the (G, H) pairs (store=True); atom_map is
       inherited from the base graph chosen by balance_its, else from the other graph; every bond carries
       (order_G or 0, order_H or 0) and standard_order = [std_of ignore_aromaticity]; well-formed *)
Theorem C01_union_opts : forall (o : copts) (G H : mgraph), wf G -> wf H ->
  let I := its_construct_o o G H in
  let J := its_construct_S o G H in
  let base := if base_is_G_o o G H then G else H in
  let other := if base_is_G_o o G H then H else G in
  (forall n, (In n (node_ids I) <-> In n (node_ids G) \/ In n (node_ids H)) /\
             (In n (node_ids J) <-> In n (node_ids G) \/ In n (node_ids H))) /\
  (forall n a, label I n = Some a ->
     i_G a = side_tuple_o o G n /\ i_H a = side_tuple_o o H n /\
     i_el a = a_el (i_G a) /\ i_ch a = a_ch (i_G a) /\
     i_extra a = Some (a_arom (i_G a), a_hc (i_G a), a_nb (i_G a)) /\
     ((exists b, label base n = Some b /\ i_amap a = g_amap b) \/
      (label base n = None /\ exists b, label other n = Some b /\ i_amap a = g_amap b))) /\
  (forall n a, label J n = Some a ->
     s_G a = side_tuple_o o G n /\ s_H a = side_tuple_o o H n /\
     s_el a = (a_el (s_G a), a_el (s_H a)) /\ s_arom a = (a_arom (s_G a), a_arom (s_H a)) /\
     s_hc a = (a_hc (s_G a), a_hc (s_H a)) /\ s_ch a = (a_ch (s_G a), a_ch (s_H a)) /\
     s_nb a = (a_nb (s_G a), a_nb (s_H a)) /\
     ((exists b, label base n = Some b /\ s_amap a = g_amap b) \/
      (label base n = None /\ exists b, label other n = Some b /\ s_amap a = g_amap b))) /\
  (forall u v a b s, (adj I u v = Some (IE a b s) <->
      a = order_in G u v /\ b = order_in H u v /\ (adj G u v <> None \/ adj H u v <> None) /\ s = std_of (o_ia o) a b)) /\
  (forall u v, adj J u v = adj I u v) /\
  std_consistent_o (o_ia o) I /\ std_consistent_o (o_ia o) J /\ wf I /\ wf J.
Proof. exact union_opts. Qed.
Print Assumptions C01_union_opts.

(** 8. what ignore_aromaticity does to C02's hypothesis [std_consistent]: it holds whenever the option is off;
       in general standard_order is zero exactly on the bonds whose orders are equal or (option on) differ by less
       than one unit, and wherever it is non-zero it is the difference.  (C02_rc_edges needs std_consistent;
       C02_rc_nodes, _idem, _equivariant, _ctx_spec, _ctx_chain do not.) *)
Theorem C01_std_opts : forall (o : copts) (G H : mgraph),
  (o_ia o = false -> std_consistent (its_construct_o o G H)) /\
  (forall u v x, In (u, v, x) (gedges (its_construct_o o G H)) ->
     (e_std x = 0 <-> e_G x = e_H x \/ (o_ia o = true /\ Z.abs (e_G x - e_H x) < 2)) /\
     (e_std x <> 0 -> e_std x = e_G x - e_H x)).
Proof. exact std_opts. Qed.
Print Assumptions C01_std_opts.

(** 9. with ignore_aromaticity=True the ITS is in general NOT std_consistent (aromatic bond 1.5 -> single bond:
       order pair (1.5, 1), standard_order 0), although the round trip (theorem 6) still holds *)
Theorem C01_ia_std_refuted :
  exists G H : mgraph, wf G /\ wf H /\ same_nodes G H /\ orders_pos G /\ orders_pos H /\
    ~ std_consistent (its_construct_o (CO true false dflt_nattr) G H) /\
    adj (its_construct_o (CO true false dflt_nattr) G H) 1%N 2%N = Some (IE 3 2 0).
Proof. exact ia_not_std_consistent. Qed.
Print Assumptions C01_ia_std_refuted.

(** 10. equivariance for every option value and both store modes *)
Theorem C01_equivariant_opts : forall f : N -> N, (forall a b, f a = f b -> a = b) ->
  forall (o : copts) (G H : mgraph) (J : itsS),
  its_construct_o o (relabel f G) (relabel f H) = relabel f (its_construct_o o G H) /\
  its_construct_S o (relabel f G) (relabel f H) = relabel f (its_construct_S o G H) /\
  its_decompose_S (relabel f J) =
    (set_amap (relabel f (fst (its_decompose_S J))), set_amap (relabel f (snd (its_decompose_S J)))).
Proof. exact equivariant_opts. Qed.
Print Assumptions C01_equivariant_opts.

(** ------------------------------------------------------------------------------------------------
    STRING HALF (model/C01_String.v): the graph -> graph logic of rsmi_to_graph / rsmi_to_its / its_to_rsmi between the
    RDKit calls.  [rmol] = a sanitised RDKit molecule as MolToGraph reads it (atoms in index order with symbol,
    aromaticity, total H, charge, atom map, sorted neighbour symbols; bonds between indices); [wmol] = the RWMol content
    GraphToMol builds (atoms with element, charge, atom map, explicit-H count; bonds with a type code).
    [mapped_nodes] / [mapped_bonds] = the mapped atoms / the bonds between mapped atoms, keyed by atom map. *)

(** 11. MolToGraph.transform(drop_non_aam=True, use_index_as_atom_map=True) in closed form: when the mapped atoms carry
        distinct maps and no two bonds join the same pair of maps, the graph has exactly the mapped atoms as nodes (id =
        atom map, in atom order, labels = the atom's), exactly the bonds between mapped atoms as edges, unmapped atoms and
        their bonds are dropped; atom_map = node id; the index table sends atom i to its map iff it is mapped *)
Theorem C01_mol_to_graph : forall m : rmol,
  NoDup (map fst (mapped_nodes m)) -> simple (mapped_bonds m) ->
  mol_to_graph true true m = Some (LG (mapped_nodes m) (mapped_bonds m)) /\
  amap_id (LG (mapped_nodes m) (mapped_bonds m)) /\
  (forall n a, In (n, a) (mapped_nodes m) <->
     exists x, In x (rm_atoms m) /\ is_mapped x = true /\ n = ra_map x /\ a = atom_node x) /\
  (forall i, lookup_idx i (mapped_ix m) =
     match nth_error (rm_atoms m) i with Some a => if is_mapped a then Some (ra_map a) else None | None => None end).
Proof. exact mol_to_graph_full. Qed.
Print Assumptions C01_mol_to_graph.

(** 12. implicit_hydrogen(graph, preserve), AS REPAIRED by /repo commit 3ba7a77 (before it every non-preserved hydrogen was
        deleted, also a lone H / H+ / H- that is folded into no atom's hcount: its_to_rsmi lost the atom and its charge,
        known_findings.d/C01.json): a hydrogen atom stays iff its atom_map is preserved OR it has no non-hydrogen neighbour
        ([has_heavy]); every other atom stays with hcount + (hydrogen neighbours) - (preserved hydrogen neighbours), i.e. the
        decrement is once per preserved hydrogen bonded to it; the bonds are exactly the bonds between remaining atoms; and the
        hydrogen total (hcount + hydrogen neighbours) of every non-hydrogen atom is unchanged, all its other labels too *)
Theorem C01_implicit_hydrogen : forall (g : mgraph) (pres : list Z), wf g ->
  let g' := implicit_hydrogen g pres in
  (forall n, label g' n =
     match label g n with
     | None => None
     | Some a => if is_H a then (if mem n (preserved g pres) || negb (has_heavy g n) then Some a else None)
                 else Some (set_hc a (g_hc a + count_h g n - count_pres g pres n))
     end) /\
  (forall u v, adj g' u v = if negb (ih_removed g pres u) && negb (ih_removed g pres v) then adj g u v else None) /\
  (forall n a, label g n = Some a -> is_H a = false ->
     exists a', label g' n = Some a' /\ g_hc a' + count_h g' n = g_hc a + count_h g n /\
                g_el a' = g_el a /\ g_arom a' = g_arom a /\ g_ch a' = g_ch a /\ g_nb a' = g_nb a /\ g_amap a' = g_amap a).
Proof. exact implicit_hydrogen_spec. Qed.
Print Assumptions C01_implicit_hydrogen.

(** 13. GraphToMol.graph_to_mol(use_h_count=True) up to the RWMol: never fails on a well-formed graph; one atom per node
        in node order with (element, charge, atom map, hcount as explicit H count); one bond per edge in edge order, joining
        the atoms of its two nodes, typed 1 / 2 / 3 for orders 1 / 2 / 3 and AROMATIC for everything else *)
Theorem C01_graph_to_wmol : forall g : mgraph,
  (wf g -> graph_to_wmol g <> None) /\
  forall w, graph_to_wmol g = Some w ->
    fst w = map (fun p => watom_of (snd p)) (gnodes g) /\
    length (snd w) = length (gedges g) /\
    forall k u v o, nth_error (gedges g) k = Some (u, v, o) ->
      exists i j, nth_error (snd w) k = Some (i, j, bond_code o) /\
                  nth_error (node_ids g) i = Some u /\ nth_error (node_ids g) j = Some v.
Proof. exact graph_to_wmol_spec. Qed.
Print Assumptions C01_graph_to_wmol.

(** 14. what its_to_rsmi hands to GraphToMol: the two decomposed graphs (well-formed, atom_map = id), unchanged when the
        reaction centre has no hydrogen atom, otherwise with implicit_hydrogen applied, the preserved maps being exactly the
        atom maps of the hydrogen atoms of the reaction centre (theorem 12 then says what happens to every other hydrogen) *)
Theorem C01_its_to_graphs : forall I : its, wf I ->
  let d := its_decompose I in
  wf (fst d) /\ wf (snd d) /\ amap_id (fst d) /\ amap_id (snd d) /\
  (forall z, In z (hlist I) <-> exists n b, label (get_rc I) n = Some b /\ i_el b = EL_H /\ z = i_amap b) /\
  its_to_graphs I =
    match hlist I with
    | [] => d
    | _ => (implicit_hydrogen (fst d) (hlist I), implicit_hydrogen (snd d) (hlist I))
    end.
Proof. exact its_to_graphs_spec. Qed.
Print Assumptions C01_its_to_graphs.

(** 15. the string round trip relative to RDKit ALONE (unlike the oracle-level premise of theorem 5: MolToGraph,
        ITSGraph, its_decompose, get_rc, the hydrogen list, GraphToMol are inside the model).  [rd_read] = parse +
        sanitise + atom/bond getters, [rd_write] = RWMol + sanitise + MolToSmiles are parameters with the contract
        R1 (first premise, written out): for a well-formed graph g that is the MolToGraph reading of a molecule RDKit has
        read, if RDKit writes the RWMol of g then reading the result back gives g again.
        Then for every balanced reaction without explicit hydrogen atoms whose two sides RDKit reads,
        its_to_rsmi (rsmi_to_its (r >> p)) = r' >> p' reads back as the same two mapped graphs.
        NOT proved (tested: oracle on the corpora and their rewritings): R1 itself; that its_to_rsmi succeeds; reactions
        WITH explicit mapped hydrogens (theorems 12 and 14 give the graph-level statement: reaction-centre hydrogens stay
        atoms, all others are folded into hcount without changing any atom's hydrogen total). *)
Theorem C01_rsmi_pipeline : forall (str : Type) (rd_read : str -> option rmol) (rd_write : wmol -> option str),
  (forall s0 m0 g w s, rd_read s0 = Some m0 -> wf g -> geq_sel g (graph_of m0) -> amap_id g ->
     graph_to_wmol g = Some w -> rd_write w = Some s ->
     exists m, rd_read s = Some m /\ (NoDup (map fst (mapped_nodes m)) /\ simple (mapped_bonds m)) /\ geq_sel (graph_of m) g) ->
  forall r p mr mp, rd_read r = Some mr -> rd_read p = Some mp ->
  (NoDup (map fst (mapped_nodes mr)) /\ simple (mapped_bonds mr)) ->
  (NoDup (map fst (mapped_nodes mp)) /\ simple (mapped_bonds mp)) ->
  let G := graph_of mr in let H := graph_of mp in
  wf G -> wf H -> same_nodes G H -> orders_pos G -> orders_pos H ->
  (forall n a, label G n = Some a -> is_H a = false) ->
  forall I r' p', rsmi_to_its_s rd_read r p = Some I -> its_to_rsmi_s rd_write I = Some (r', p') ->
  I = its_construct G H /\
  exists mr' mp', rd_read r' = Some mr' /\ rd_read p' = Some mp' /\
                  (NoDup (map fst (mapped_nodes mr')) /\ simple (mapped_bonds mr')) /\
                  (NoDup (map fst (mapped_nodes mp')) /\ simple (mapped_bonds mp')) /\
                  geq_sel (graph_of mr') G /\ geq_sel (graph_of mp') H.
Proof. exact rsmi_pipeline. Qed.
Print Assumptions C01_rsmi_pipeline.

(** 16. rsmi_to_its(explicit_hydrogen=True) = h_to_explicit(its, None, True) on the ITS, AS REPAIRED by /repo commit
        61e730e (before it the product half of typesGH kept its hcount while the hydrogens were added on both sides: the
        ITS no longer decomposed into the reaction, known_findings.d/C01.json).  For a well-formed ITS: every original
        atom keeps all labels except that the hydrogens it has on BOTH sides (count = min(hcount, product hcount)) leave
        hcount and both halves of typesGH; the added atoms are hydrogen atoms with fresh ids; the added bonds are (1, 1)
        bonds with standard_order 0 to a fresh atom; every bond between original atoms is unchanged.
        (How many hydrogens each atom gets: theorem 17.) *)
Theorem C01_h_to_explicit_its : forall I : its, wf I ->
  let J := fst (h_to_explicit_its I) in
  let mx0 := fold_left N.max (node_ids I) 0%N in
  (forall n a, label I n = Some a ->
     (n <= mx0)%N /\ label J n = Some (if hx_count a <=? 0 then a else hx_dec a (hx_count a))) /\
  (exists nn, node_ids J = node_ids I ++ map fst nn /\
              Forall (fun p : N * inode => (mx0 < fst p)%N /\ snd p = h_inode) nn /\
              forall p, In p nn -> In p (gnodes J)) /\
  (exists ne, gedges J = gedges I ++ ne /\
              Forall (fun e : N * N * iedge => let '(u, v, x) := e in (mx0 < v)%N /\ x = IE 2 2 0) ne) /\
  (forall u v, (u <= mx0)%N -> (v <= mx0)%N -> adj J u v = adj I u v).
Proof. exact h_to_explicit_its_spec. Qed.
Print Assumptions C01_h_to_explicit_its.

(** 17. ... and every original atom gets exactly as many hydrogen atoms (bonds (n, fresh, (1, 1, 0)) among the added bonds)
        as leave its hcount and both halves of its typesGH, c = max 0 (min hcount product-hcount): its hydrogen total is
        unchanged on both sides *)
Theorem C01_h_to_explicit_count : forall I : its, wf I -> forall n a, label I n = Some a ->
  let J := fst (h_to_explicit_its I) in
  let c := Z.max 0 (hx_count a) in
  exists ne, gedges J = gedges I ++ ne /\
    length (filter (fun e : N * N * iedge => N.eqb (fst (fst e)) n) ne) = Z.to_nat c /\
    (forall b, label J n = Some b ->
       a_hc (i_G b) + c = a_hc (i_G a) /\ a_hc (i_H b) + c = a_hc (i_H a) /\ top_hc b + c = top_hc a).
Proof. exact h_to_explicit_count. Qed.
Print Assumptions C01_h_to_explicit_count.

(** 18. with the writer option its_to_rsmi(its, explicit_hydrogen=True) nothing is folded (the decomposed graphs go to
        GraphToMol as they are), so the string round trip relative to R1 holds for EVERY balanced reaction whose sides RDKit
        reads, explicit hydrogen atoms included (no hydrogen hypothesis, compare theorem 15) *)
Theorem C01_rsmi_pipeline_explicit : forall (str : Type) (rd_read : str -> option rmol) (rd_write : wmol -> option str),
  (forall s0 m0 g w s, rd_read s0 = Some m0 -> wf g -> geq_sel g (graph_of m0) -> amap_id g ->
     graph_to_wmol g = Some w -> rd_write w = Some s ->
     exists m, rd_read s = Some m /\ (NoDup (map fst (mapped_nodes m)) /\ simple (mapped_bonds m)) /\ geq_sel (graph_of m) g) ->
  forall r p mr mp, rd_read r = Some mr -> rd_read p = Some mp ->
  (NoDup (map fst (mapped_nodes mr)) /\ simple (mapped_bonds mr)) ->
  (NoDup (map fst (mapped_nodes mp)) /\ simple (mapped_bonds mp)) ->
  let G := graph_of mr in let H := graph_of mp in
  wf G -> wf H -> same_nodes G H -> orders_pos G -> orders_pos H ->
  forall J r' p', rsmi_to_its_s rd_read r p = Some J -> its_to_rsmi_s_opt rd_write true J = Some (r', p') ->
  J = its_construct G H /\
  exists mr' mp', rd_read r' = Some mr' /\ rd_read p' = Some mp' /\
                  (NoDup (map fst (mapped_nodes mr')) /\ simple (mapped_bonds mr')) /\
                  (NoDup (map fst (mapped_nodes mp')) /\ simple (mapped_bonds mp')) /\
                  geq_sel (graph_of mr') G /\ geq_sel (graph_of mp') H.
Proof. exact rsmi_pipeline_explicit. Qed.
Print Assumptions C01_rsmi_pipeline_explicit.

(** 19. "every atom-map renumbering" inside the model of the string half: applying an injective map f (non-zero maps stay
        non-zero) to the atom maps of both molecules of a reaction gives the molecule graphs relabelled by f (atom_map
        following the node id) and the ITS relabelled by f (with atom_map = node id) - no hypothesis on the molecules.
        Together with C02_rc_equivariant the reaction centre of the renumbered reaction is the renumbered centre. *)
Theorem C01_renumber : forall f : N -> N, (forall a b, f a = f b -> a = b) -> (forall a, a <> 0%N -> f a <> 0%N) ->
  forall mr mp : rmol,
  graph_of (renum_mol f mr) = set_amap (relabel f (graph_of mr)) /\
  its_construct (graph_of (renum_mol f mr)) (graph_of (renum_mol f mp)) =
    set_iamap (relabel f (its_construct (graph_of mr) (graph_of mp))).
Proof. exact renumber. Qed.
Print Assumptions C01_renumber.

(** 20. implicit_hydrogen depends only on the labelled graph: two well-formed graphs with the same node labels and the same
        bond map (whatever the order of their node and edge lists, i.e. whatever order networkx iterates in) give results
        with the same labels and the same bond map.  (Order independence of the hydrogen bookkeeping of its_to_rsmi.) *)
Theorem C01_implicit_hydrogen_ext : forall g1 g2 : mgraph, wf g1 -> wf g2 ->
  (forall n, label g1 n = label g2 n) -> (forall u v, adj g1 u v = adj g2 u v) ->
  forall pres, geq (implicit_hydrogen g1 pres) (implicit_hydrogen g2 pres).
Proof. exact implicit_hydrogen_ext. Qed.
Print Assumptions C01_implicit_hydrogen_ext.

(** 21. ... and the reaction centre (C02's get_rc) of the renumbered reaction is the renumbered reaction centre: the clause
        "renumbering the atom maps of the reaction yields an isomorphic centre" of C02 at the level of the reaction's
        molecules (theorem 19 + C02_rc_equivariant + get_rc commutes with atom_map := node id) *)
Theorem C01_renumber_centre : forall f : N -> N, (forall a b, f a = f b -> a = b) -> (forall a, a <> 0%N -> f a <> 0%N) ->
  forall mr mp : rmol,
  get_rc (its_construct (graph_of (renum_mol f mr)) (graph_of (renum_mol f mp))) =
  set_iamap (relabel f (get_rc (its_construct (graph_of mr) (graph_of mp)))).
Proof. exact renumber_centre. Qed.
Print Assumptions C01_renumber_centre.

(** 22. ... and what its_to_rsmi hands to GraphToMol for the renumbered ITS (hydrogen list, folding, both sides) is, atom
        by atom and bond by bond, what it hands over for the original ITS, renumbered.  J = an ITS whose atom_map is the
        node id (every output of rsmi_to_its).  With 19 and 21: renumbering the atom maps of a reaction string commutes
        with the whole model of rsmi_to_its / get_rc / its_to_rsmi up to the RWMols. *)
Theorem C01_its_to_graphs_renumber : forall f : N -> N, (forall a b, f a = f b -> a = b) ->
  forall J : its, wf J -> (forall n a, label J n = Some a -> i_amap a = Z.of_N n) ->
  let A := its_to_graphs J in
  let B := its_to_graphs (set_iamap (relabel f J)) in
  let rn := fun (m : N) (a : gnode) => GN (g_el a) (g_arom a) (g_hc a) (g_ch a) (g_nb a) (Z.of_N m) in
  (forall n, label (fst B) (f n) = option_map (rn (f n)) (label (fst A) n)) /\
  (forall u v, adj (fst B) (f u) (f v) = adj (fst A) u v) /\
  (forall n, label (snd B) (f n) = option_map (rn (f n)) (label (snd A) n)) /\
  (forall u v, adj (snd B) (f u) (f v) = adj (snd A) u v).
Proof. exact its_to_graphs_renumber. Qed.
Print Assumptions C01_its_to_graphs_renumber.

(** 23. the explicit-hydrogen ITS of a well-formed ITS is well formed (distinct ids: the invented ids are fresh and
        pairwise different; one entry per bond; every bond joins two different present atoms), so theorems 14 and 22
        and the C02 theorems apply to what rsmi_to_its(explicit_hydrogen=True) returns *)
Theorem C01_h_to_explicit_wf : forall I : its, wf I -> wf (fst (h_to_explicit_its I)).
Proof. exact h_to_explicit_its_wf. Qed.
Print Assumptions C01_h_to_explicit_wf.

(** ------------------------------------------------------------------------------------------------
    CALLER-CHOSEN node_attrs (model/C01_Attrs.v): construct(G, H, node_attrs=L) writes typesGH in the ORDER of L (values
    untyped, [aval]); its_decompose reads typesGH POSITIONALLY: element = [0], aromatic = [1], hcount = [2], charge = [3]. *)

(** 24. whenever the caller's list starts with the legacy order (element, aromatic, hcount, charge) - whatever follows,
        known names, repetitions or unknown names - the positional decomposition never fails and is exactly the
        decomposition of the legacy ITS (so theorem 1 gives the round trip) *)
Theorem C01_attrs_legacy_prefix : forall (rest : list akey) (G H : mgraph),
  its_decompose_A (its_construct_A (KEl :: KAr :: KHc :: KCh :: rest) G H) =
  Some (LG (map (fun p => (fst p, untyped (snd p))) (gnodes (fst (its_decompose (its_construct G H)))))
           (gedges (fst (its_decompose (its_construct G H)))),
        LG (map (fun p => (fst p, untyped (snd p))) (gnodes (snd (its_decompose (its_construct G H)))))
           (gedges (snd (its_decompose (its_construct G H))))).
Proof. exact attrs_legacy_prefix. Qed.
Print Assumptions C01_attrs_legacy_prefix.

(** 25. for a list in another order the round trip FAILS by construction of its_decompose (not a defect of construct:
        its_decompose cannot know the list; rsmi_to_its therefore always passes the legacy list - a change that forwards the
        caller's list, seeded C01-w3-1, breaks the property).  Witness: the six names sorted alphabetically; the
        decomposition's "element" of atom 1 is the aromatic flag, its "charge" the element *)
Theorem C01_attrs_order_refuted :
  exists G H : mgraph, wf G /\ wf H /\ same_nodes G H /\ orders_pos G /\ orders_pos H /\
    exists a b, its_decompose_A (its_construct_A [KAr; KAm; KCh; KEl; KHc; KNb] G H) = Some (a, b) /\
                a <> LG (map (fun p => (fst p, untyped (snd p))) (gnodes (fst (its_decompose (its_construct G H)))))
                        (gedges (fst (its_decompose (its_construct G H)))) /\
                label a 1%N = Some (VB false, VZ 1, VZ 0, VS 70%N).
Proof. exact attrs_order_refuted. Qed.
Print Assumptions C01_attrs_order_refuted.

(** 26. rsmi_to_its(rsmi, node_attrs=L) in the model: the caller's list only selects what MolToGraph stores (a set:
        order and repetitions are irrelevant); with all six names it IS rsmi_to_its with the defaults; an unselected
        attribute reads as the core default in typesGH (which is always in the legacy order) *)
Theorem C01_rsmi_to_its_sel : forall (s : asel) (mr mp : rmol),
  rsmi_to_its_sel all_sel mr mp = rsmi_to_its_m mr mp /\
  forall g h J, rsmi_to_graph_m mr mp = Some (g, h) -> rsmi_to_its_sel s mr mp = Some J ->
    forall n b, label J n = Some b ->
      i_G b = side_tuple (fill_graph s g) n /\ i_H b = side_tuple (fill_graph s h) n /\
      (forall a, label g n = Some a -> a_el (i_G b) = (if p_el s then g_el a else EL_STAR) /\
                                       a_hc (i_G b) = (if p_hc s then g_hc a else 0) /\
                                       a_ch (i_G b) = (if p_ch s then g_ch a else 0) /\
                                       a_arom (i_G b) = (if p_ar s then g_arom a else false)).
Proof. exact rsmi_to_its_sel_spec. Qed.
Print Assumptions C01_rsmi_to_its_sel.

(** 27. the string round trip for reactions WITH explicit mapped hydrogens under the default writer, relative to a
        contract on RDKit alone (four premises, written out): for a predicate [ok] on molecule graphs ("RDKit-normal"),
        P1 what RDKit reads is ok; P2 ok depends only on the labelled graph (element, aromaticity, H count, charge, atom map,
        bonds); P3 folding explicit hydrogens into H counts (implicit_hydrogen) keeps a well-formed ok graph ok; P4 an ok,
        well-formed graph with atom_map = id that RDKit writes reads back as itself.
        Then for every balanced reaction whose sides RDKit reads, its_to_rsmi (rsmi_to_its (r >> p)) reads back, on each
        side, as the input graph with every hydrogen that is not in the reaction centre folded into its neighbour's H count
        ([smi_graph G (hlist J)]: theorem 12 says exactly what that is) - the reacting hydrogens stay atoms.
        NOT proved: P1-P4 for the real RDKit (monitored by the string oracle, which compares modulo spectator hydrogens). *)
Theorem C01_rsmi_pipeline_hydrogens : forall (str : Type) (rd_read : str -> option rmol) (rd_write : wmol -> option str)
    (ok : mgraph -> Prop),
  ((forall s m, rd_read s = Some m -> ok (graph_of m)) /\
   (forall g g', ok g ->
      ((forall n, option_map sel5 (label g' n) = option_map sel5 (label g n)) /\ (forall u v, adj g' u v = adj g u v)) -> ok g') /\
   (forall g pres, ok g -> wf g -> ok (implicit_hydrogen g pres)) /\
   (forall g w s, ok g -> wf g -> amap_id g -> graph_to_wmol g = Some w -> rd_write w = Some s ->
      exists m, rd_read s = Some m /\ (NoDup (map fst (mapped_nodes m)) /\ simple (mapped_bonds m)) /\ geq_sel (graph_of m) g)) ->
  forall r p mr mp, rd_read r = Some mr -> rd_read p = Some mp ->
  (NoDup (map fst (mapped_nodes mr)) /\ simple (mapped_bonds mr)) ->
  (NoDup (map fst (mapped_nodes mp)) /\ simple (mapped_bonds mp)) ->
  let G := graph_of mr in let H := graph_of mp in
  wf G -> wf H -> same_nodes G H -> orders_pos G -> orders_pos H ->
  forall J r' p', rsmi_to_its_s rd_read r p = Some J -> its_to_rsmi_s rd_write J = Some (r', p') ->
  J = its_construct G H /\
  exists mr' mp', rd_read r' = Some mr' /\ rd_read p' = Some mp' /\
                  (NoDup (map fst (mapped_nodes mr')) /\ simple (mapped_bonds mr')) /\
                  (NoDup (map fst (mapped_nodes mp')) /\ simple (mapped_bonds mp')) /\
                  geq_sel (graph_of mr') (smi_graph G (hlist J)) /\ geq_sel (graph_of mp') (smi_graph H (hlist J)).
Proof. exact rsmi_pipeline_hydrogens. Qed.
Print Assumptions C01_rsmi_pipeline_hydrogens.

(** 28. its_to_rsmi(its, clean_wildcards=True) = clean_wc(rsmi) (text level): the reactant side is untouched; the product side
        stays as it is when every '.'-fragment contains '*', otherwise it becomes ONE of its star-free fragments, of maximal
        length among them *)
Theorem C01_clean_wildcards : forall react prod : String.string,
  fst (clean_wc react prod) = react /\
  let sf := filter (fun f => negb (has_star f)) (split_dot prod) in
  (sf = nil -> snd (clean_wc react prod) = prod) /\
  (sf <> nil -> In (snd (clean_wc react prod)) sf /\
                forall f, In f sf -> (String.length f <= String.length (snd (clean_wc react prod)))%nat).
Proof. exact clean_wc_spec. Qed.
Print Assumptions C01_clean_wildcards.

(** 29. ... hence the option is lossy, wildcards or not: with two star-free product fragments one of them is dropped, and
        the string round trip of the property is refuted for clean_wildcards=True (by design of clean_wc; `max_frag` is not
        consulted) *)
Theorem C01_clean_wildcards_refuted :
  has_star cw_prod = false /\ split_dot cw_prod = cw_frag1 :: cw_frag2 :: nil /\
  snd (clean_wc cw_react cw_prod) = cw_frag1 /\ snd (clean_wc cw_react cw_prod) <> cw_prod.
Proof. exact clean_wc_lossy. Qed.
Print Assumptions C01_clean_wildcards_refuted.

(** 30. rsmi.split(">>") and ">>".join: joining the parts of ANY string gives the string back; no part contains ">>"; and a
        list of parts none of which contains '>' (SMILES never do) is recovered exactly by splitting their join - in particular
        f"{r}>>{p}" splits into (r, p), which is what ties its_to_rsmi's output format to rsmi_to_graph's input format *)
Theorem C01_split_join :
  (forall s : String.string, join_arrow (split_arrow s) = s) /\
  (forall s : String.string, Forall (fun p => has_arrow p = false) (split_arrow s)) /\
  (forall l : list String.string, l <> nil -> Forall (fun a => has_gt a = false) l -> split_arrow (join_arrow l) = l) /\
  (forall a b : String.string, has_gt a = false -> has_gt b = false -> rsmi_parts (String.append a (String.append ">>"%string b)) = Some (a, b)) /\
  (forall s a b, rsmi_parts s = Some (a, b) -> s = String.append a (String.append ">>"%string b)).
Proof. exact (conj join_split (conj split_parts_no_arrow (conj split_join (conj rsmi_parts_join rsmi_parts_spec)))). Qed.
Print Assumptions C01_split_join.

(** 31. failure modes of the string functions, for ANY reader/writer: a reaction string that does not split into exactly two
        parts gives (None, None) from rsmi_to_graph and an exception from rsmi_to_its; drop_non_aam without
        use_index_as_atom_map gives (None, None) for every string; rsmi_to_its never returns None; its_to_rsmi never raises
        without clean_wildcards and never returns None with it *)
Theorem C01_rsmi_failures : forall (rd_read : bool -> String.string -> option rmol) (rd_write : bool -> wmol -> option String.string),
  (forall o s, rsmi_parts s = None ->
     rsmi_to_graph_s rd_read (ro_drop o) (ro_san o) (ro_use o) s = (None, None) /\ rsmi_to_its_str rd_read o s = Raise) /\
  (forall san core eh s,
     rsmi_to_graph_s rd_read true san false s = (None, None) /\ rsmi_to_its_str rd_read (RO true san false core eh) s = Raise) /\
  (forall o s, rsmi_to_its_str rd_read o s <> RNone) /\
  (forall san eh J, its_to_rsmi_str rd_write san eh false J <> Raise /\
                    (forall cw, cw = true -> its_to_rsmi_str rd_write san eh cw J <> RNone)).
Proof.
  intros rd_read rd_write.
  exact (conj (rsmi_malformed rd_read) (conj (rsmi_drop_without_use rd_read) (conj (rsmi_to_its_not_none rd_read) (its_to_rsmi_modes rd_write)))).
Qed.
Print Assumptions C01_rsmi_failures.

(** 32. the string round trip for the WHOLE reaction string (theorem 27 lifted through split and join): the functions are
        rsmi_to_its(s) and its_to_rsmi(its) on one string each.  Premises on RDKit: the four of theorem 27 (for the
        sanitising reader / writer) and W0 "MolToSmiles never emits '>'".  For every string s = r>>p whose sides RDKit reads as
        a balanced reaction: its_to_rsmi(rsmi_to_its(s)) = s' splits again into exactly two sides r', p' which read back as the
        input graphs with every non-centre hydrogen folded.
        NOT proved: W0 and P1-P4 for the real RDKit (monitored: oracle + kinds rs-split and rs-str); the clause "has the same
        unmapped reactants and products" of the property is theorems 61 (graph level, full) and 62 (string level, relative to
        one more contract on RDKit's canonical writer after removing the maps). *)
Theorem C01_rsmi_string_roundtrip : forall (rd_read : bool -> String.string -> option rmol)
    (rd_write : bool -> wmol -> option String.string) (ok : mgraph -> Prop),
  (forall w s, rd_write true w = Some s -> has_gt s = false) ->
  ((forall s m, rd_read true s = Some m -> ok (graph_of m)) /\
   (forall g g', ok g ->
      ((forall n, option_map sel5 (label g' n) = option_map sel5 (label g n)) /\ (forall u v, adj g' u v = adj g u v)) -> ok g') /\
   (forall g pres, ok g -> wf g -> ok (implicit_hydrogen g pres)) /\
   (forall g w s, ok g -> wf g -> amap_id g -> graph_to_wmol g = Some w -> rd_write true w = Some s ->
      exists m, rd_read true s = Some m /\ (NoDup (map fst (mapped_nodes m)) /\ simple (mapped_bonds m)) /\ geq_sel (graph_of m) g)) ->
  forall s r p mr mp, rsmi_parts s = Some (r, p) -> rd_read true r = Some mr -> rd_read true p = Some mp ->
  (NoDup (map fst (mapped_nodes mr)) /\ simple (mapped_bonds mr)) ->
  (NoDup (map fst (mapped_nodes mp)) /\ simple (mapped_bonds mp)) ->
  let G := graph_of mr in let H := graph_of mp in
  wf G -> wf H -> same_nodes G H -> orders_pos G -> orders_pos H ->
  forall J s', rsmi_to_its_str rd_read default_ropts s = Ok J -> its_to_rsmi_str rd_write true false false J = Ok s' ->
  J = its_construct G H /\
  exists r' p', rsmi_parts s' = Some (r', p') /\
  exists mr' mp', rd_read true r' = Some mr' /\ rd_read true p' = Some mp' /\
                  (NoDup (map fst (mapped_nodes mr')) /\ simple (mapped_bonds mr')) /\
                  (NoDup (map fst (mapped_nodes mp')) /\ simple (mapped_bonds mp')) /\
                  geq_sel (graph_of mr') (smi_graph G (hlist J)) /\ geq_sel (graph_of mp') (smi_graph H (hlist J)).
Proof. exact rsmi_string_roundtrip. Qed.
Print Assumptions C01_rsmi_string_roundtrip.

(** 33. the same for its_to_rsmi(its, explicit_hydrogen=True), relative to R1 and W0: both sides read back as the input graphs *)
Theorem C01_rsmi_string_roundtrip_explicit : forall (rd_read : bool -> String.string -> option rmol)
    (rd_write : bool -> wmol -> option String.string),
  (forall w s, rd_write true w = Some s -> has_gt s = false) ->
  (forall s0 m0 g w s, rd_read true s0 = Some m0 -> wf g -> geq_sel g (graph_of m0) -> amap_id g ->
     graph_to_wmol g = Some w -> rd_write true w = Some s ->
     exists m, rd_read true s = Some m /\ (NoDup (map fst (mapped_nodes m)) /\ simple (mapped_bonds m)) /\ geq_sel (graph_of m) g) ->
  forall s r p mr mp, rsmi_parts s = Some (r, p) -> rd_read true r = Some mr -> rd_read true p = Some mp ->
  (NoDup (map fst (mapped_nodes mr)) /\ simple (mapped_bonds mr)) ->
  (NoDup (map fst (mapped_nodes mp)) /\ simple (mapped_bonds mp)) ->
  let G := graph_of mr in let H := graph_of mp in
  wf G -> wf H -> same_nodes G H -> orders_pos G -> orders_pos H ->
  forall J s', rsmi_to_its_str rd_read default_ropts s = Ok J -> its_to_rsmi_str rd_write true true false J = Ok s' ->
  J = its_construct G H /\
  exists r' p', rsmi_parts s' = Some (r', p') /\
  exists mr' mp', rd_read true r' = Some mr' /\ rd_read true p' = Some mp' /\
                  (NoDup (map fst (mapped_nodes mr')) /\ simple (mapped_bonds mr')) /\
                  (NoDup (map fst (mapped_nodes mp')) /\ simple (mapped_bonds mp')) /\
                  geq_sel (graph_of mr') G /\ geq_sel (graph_of mp') H.
Proof. exact rsmi_string_roundtrip_explicit. Qed.
Print Assumptions C01_rsmi_string_roundtrip_explicit.

(** 34. the 'neighbors' attribute is computed inside the model ([fill_nb]: an RDKit molecule enters without the list):
        every atom keeps its five read-off fields, and its list is sorted by the byte order of the symbols and is a
        permutation of the symbols of the atoms at the other end of its bonds - unmapped atoms included ([nbr_idx]: j is
        listed for i iff some bond joins i and j); every node of the molecule graph of rsmi_to_graph (hence, by theorems 2
        and 7, the fifth entry of both halves of typesGH) carries exactly that list *)
Theorem C01_neighbors : forall m : rmol0,
  (forall i a, nth_error (rm_atoms (fill_nb m)) i = Some a ->
     exists a0, nth_error (rm0_atoms m) i = Some a0 /\
       ra_el a = r0_el a0 /\ ra_arom a = r0_arom a0 /\ ra_hs a = r0_hs a0 /\ ra_ch a = r0_ch a0 /\ ra_map a = r0_map a0 /\
       Sorted.Sorted (fun x y => sym_leb x y = true) (ra_nb a) /\
       Permutation.Permutation (ra_nb a) (flat_map (sym_at m) (nbr_idx (rm0_bonds m) i))) /\
  (forall i j, In j (nbr_idx (rm0_bonds m) i) <-> exists o, In (i, j, o) (rm0_bonds m) \/ In (j, i, o) (rm0_bonds m)) /\
  rm_bonds (fill_nb m) = rm0_bonds m /\
  (forall k g, In (k, g) (mapped_nodes (fill_nb m)) ->
     exists i a0, nth_error (rm0_atoms m) i = Some a0 /\ k = r0_map a0 /\ k <> 0%N /\
                  g = GN (r0_el a0) (r0_arom a0) (r0_hs a0) (r0_ch a0) (Some (nb_syms m i)) (Z.of_N k)).
Proof.
  intros m. exact (conj (neighbors_spec m) (conj (nbr_idx_in (rm0_bonds m)) (conj (fill_nb_bonds m) (graph_neighbors m)))).
Qed.
Print Assumptions C01_neighbors.

(** 35. the order used by sorted() is a total preorder that is antisymmetric on the bytes, so the stored list does not
        depend on the order in which RDKit enumerates an atom's neighbours: any two enumerations (permutations of each other)
        give lists with the same symbol bytes *)
Theorem C01_neighbors_order_independent :
  (forall a b, lex_leb a b = true \/ lex_leb b a = true) /\
  (forall a b c, lex_leb a b = true -> lex_leb b c = true -> lex_leb a c = true) /\
  (forall a b, lex_leb a b = true -> lex_leb b a = true -> a = b) /\
  (forall l1 l2, Permutation.Permutation l1 l2 -> map sym_bytes (sort_syms l1) = map sym_bytes (sort_syms l2)).
Proof. exact (conj lex_leb_total (conj lex_leb_trans (conj lex_leb_antisym sort_syms_order_independent))). Qed.
Print Assumptions C01_neighbors_order_independent.

(** 36. construct and decompose are extensional: they depend only on the label map and the bond map of their arguments
        ([geq]), i.e. not on the order in which networkx enumerates nodes and edges (nor on which of two equal-sized graphs
        is copied as the base) *)
Theorem C01_extensional :
  (forall G H G' H' : mgraph, wf G -> wf H -> wf G' -> wf H' -> geq G' G -> geq H' H ->
     geq (its_construct G' H') (its_construct G H)) /\
  (forall I I' : its, wf I -> wf I' -> geq I' I ->
     geq (fst (its_decompose I')) (fst (its_decompose I)) /\ geq (snd (its_decompose I')) (snd (its_decompose I))).
Proof. exact (conj construct_ext decompose_ext). Qed.
Print Assumptions C01_extensional.

(** 37. "every SMILES re-rooting / fragment reordering": if each side of a reaction is read as the same atoms in another
        index order ([rewritten s m m']: s renumbers the atom indices injectively, every atom keeps its six read-off fields,
        the bonds are the same bonds between the renumbered ends in either direction and any order), then the molecule
        graphs of rsmi_to_graph, the ITS of rsmi_to_its and both graphs of its_decompose are the same label and bond maps.
        (That RDKit reads a re-rooted SMILES as such a rewriting is RDKit's business: compared on the kinds rw-reroot, rw-frag.) *)
Theorem C01_rewriting_invariant : forall (sr sp : nat -> nat) (mr mr' mp mp' : rmol),
  rewritten sr mr mr' -> rewritten sp mp mp' ->
  (NoDup (map fst (mapped_nodes mr)) /\ simple (mapped_bonds mr)) -> (NoDup (map fst (mapped_nodes mr')) /\ simple (mapped_bonds mr')) ->
  (NoDup (map fst (mapped_nodes mp)) /\ simple (mapped_bonds mp)) -> (NoDup (map fst (mapped_nodes mp')) /\ simple (mapped_bonds mp')) ->
  wf (graph_of mr) -> wf (graph_of mp) -> wf (graph_of mr') -> wf (graph_of mp') ->
  geq (graph_of mr') (graph_of mr) /\ geq (graph_of mp') (graph_of mp) /\
  let I := its_construct (graph_of mr) (graph_of mp) in
  let I' := its_construct (graph_of mr') (graph_of mp') in
  rsmi_to_its_m mr' mp' = Some I' /\ rsmi_to_its_m mr mp = Some I /\
  geq I' I /\
  geq (fst (its_decompose I')) (fst (its_decompose I)) /\ geq (snd (its_decompose I')) (snd (its_decompose I)).
Proof.
  intros sr sp mr mr' mp mp' Rr Rp Or Or' Op Op' Wr Wp Wr' Wp'.
  exact (conj (rewritten_graph sr mr mr' Rr Or Or') (conj (rewritten_graph sp mp mp' Rp Op Op')
          (rewritten_its sr sp mr mr' mp mp' Rr Rp Or Or' Op Op' Wr Wp Wr' Wp'))).
Qed.
Print Assumptions C01_rewriting_invariant.

(** 38. "every reversal": for a balanced pair with atom_map = node id, the ITS of (H, G) is the ITS of (G, H) with the halves
        of typesGH swapped (top-level attributes = the new reactant side), every order pair swapped and standard_order
        negated; its decomposition is the decomposition of (G, H) with the sides exchanged *)
Theorem C01_reverse : forall G H : mgraph, wf G -> wf H -> same_nodes G H -> amap_id G -> amap_id H ->
  (forall n, label (its_construct H G) n = option_map swap_inode (label (its_construct G H) n)) /\
  (forall u v, adj (its_construct H G) u v = option_map swap_iedge (adj (its_construct G H) u v)) /\
  geq (fst (its_decompose (its_construct H G))) (snd (its_decompose (its_construct G H))) /\
  geq (snd (its_decompose (its_construct H G))) (fst (its_decompose (its_construct G H))).
Proof. exact reverse_its. Qed.
Print Assumptions C01_reverse.

(** 39. the MolToGraph converter OBJECT (state = _graph): transform never touches the state and returns the same on any
        state; reading .graph does not change the state; after ANY history of transform / transform_store / .graph calls
        on one object, .graph returns the graph of the last SUCCESSFUL transform_store and raises iff there was none; and
        every other step of a history returns what the same call returns on a fresh converter *)
Theorem C01_converter_state :
  (forall st st' d u m, fst (cstep st (OpTransform d u m)) = st /\
                        snd (cstep st (OpTransform d u m)) = snd (cstep st' (OpTransform d u m))) /\
  (forall st, fst (cstep st OpGraph) = st) /\
  (forall ops, snd (cstep (cstate_after cinit ops) OpGraph) =
               match last_store ops None with Some g => CGraph g | None => CErr end) /\
  (forall ops1 op ops2,
     nth_error (crun cinit (ops1 ++ op :: ops2)) (length ops1) =
     Some (match op with
           | OpGraph => match last_store ops1 None with Some g => CGraph g | None => CErr end
           | _ => snd (cstep cinit op)
           end)).
Proof. exact (conj transform_stateless (conj graph_read_pure (conj conv_graph_spec conv_history_spec))). Qed.
Print Assumptions C01_converter_state.

(** 40. GraphToMol.graph_to_mol on graphs that LACK attributes: with every attribute present the generic model is the
        graph_to_mol of theorem 13 for every value of (ignore_bond_order, use_h_count); an absent element / charge / atom map is
        "*" / 0 / no map (= 0), an absent hcount leaves the hydrogens to RDKit exactly as use_h_count=False does, and an absent
        bond order is the order 1 written out *)
Theorem C01_graph_to_mol_absent :
  (forall ibo uhc (g : mgraph), graph_to_wmol_g ibo uhc (lift_graph g) = graph_to_wmol_o ibo uhc g) /\
  (forall ibo uhc (g : ggraph) w, graph_to_wmol_g ibo uhc g = Some w ->
     fst w = map (fun p => watom_g uhc (snd p)) (gnodes g) /\
     (forall a, watom_g uhc a =
        WA (match gg_el a with Some e => e | None => EL_STAR end) (match gg_ch a with Some c => c | None => 0 end)
           (match gg_amap a with Some m => m | None => 0 end)
           (match gg_hc a with Some h => if uhc then h else -1 | None => -1 end)) /\
     graph_to_wmol_g ibo uhc g =
     graph_to_wmol_g ibo uhc (LG (gnodes g) (map (fun e : N * N * option Z => let '(u, v, o) := e in (u, v, Some (dflt 2 o))) (gedges g)))).
Proof. exact (conj g2m_lift g2m_absent). Qed.
Print Assumptions C01_graph_to_mol_absent.

(** 41. ... and on the WRITER side: what its_to_rsmi hands to GraphToMol depends only on the label and bond maps of the ITS
        (reaction centre, the SET of its hydrogens' atom maps, the folding of all other hydrogens), so a reaction written with
        its sides re-rooted / reordered gives the same preserve set and the same two graphs to write *)
Theorem C01_written_invariant :
  (forall I I' : its, wf I -> wf I' -> geq I' I ->
     (forall z, In z (hlist I') <-> In z (hlist I)) /\
     geq (fst (its_to_graphs I')) (fst (its_to_graphs I)) /\ geq (snd (its_to_graphs I')) (snd (its_to_graphs I))) /\
  (forall (sr sp : nat -> nat) (mr mr' mp mp' : rmol),
     rewritten sr mr mr' -> rewritten sp mp mp' ->
     (NoDup (map fst (mapped_nodes mr)) /\ simple (mapped_bonds mr)) -> (NoDup (map fst (mapped_nodes mr')) /\ simple (mapped_bonds mr')) ->
     (NoDup (map fst (mapped_nodes mp)) /\ simple (mapped_bonds mp)) -> (NoDup (map fst (mapped_nodes mp')) /\ simple (mapped_bonds mp')) ->
     wf (graph_of mr) -> wf (graph_of mp) -> wf (graph_of mr') -> wf (graph_of mp') ->
     let I := its_construct (graph_of mr) (graph_of mp) in
     let I' := its_construct (graph_of mr') (graph_of mp') in
     (forall z, In z (hlist I') <-> In z (hlist I)) /\
     geq (fst (its_to_graphs I')) (fst (its_to_graphs I)) /\ geq (snd (its_to_graphs I')) (snd (its_to_graphs I))).
Proof. exact written_invariant_all. Qed.
Print Assumptions C01_written_invariant.

(** 42. the executable test the correspondence runs on what RDKit reads from a SMILES and from its re-rooted / fragment-shuffled
        rewriting (kind rw-premise; renumbering derived from the atom maps) is sound for the hypothesis [rewritten] of theorems
        37 and 41: whenever it evaluates to true, that hypothesis holds for the two readings *)
Theorem C01_rewritten_test_sound : forall (sl : list nat) (m m' : rmol),
  rewrittenb sl m m' = true -> rewritten (s_of sl) m m'.
Proof. exact rewrittenb_sound. Qed.
Print Assumptions C01_rewritten_test_sound.

(** 43. its_decompose with EVERY branch (nodes without typesGH are skipped, an empty product tuple skips the product side,
        edges without order are skipped, add_edge creates attribute-less end nodes that are missing): on a well-formed ITS of
        the model it is exactly the its_decompose of theorem 1 - no node is created by add_edge and no edge is merged; and the
        node pass in closed form *)
Theorem C01_decompose_raw :
  (forall I : its, wf I ->
     its_decompose_raw (embed_its I) = (some_nodes (fst (its_decompose I)), some_nodes (snd (its_decompose I)))) /\
  (forall (I : rits) n (o : option gnode),
     (In (n, o) (raw_nodes (fun t => Some (fst t)) I) <-> exists g h, In (n, Some (g, h)) (gnodes I) /\ o = Some (dec_node g n)) /\
     (In (n, o) (raw_nodes snd I) <-> exists g h, In (n, Some (g, Some h)) (gnodes I) /\ o = Some (dec_node h n))).
Proof. exact (conj decompose_raw_embed raw_nodes_spec). Qed.
Print Assumptions C01_decompose_raw.

(** 44. implicit_hydrogen (as repaired) conserves the number of hydrogens: with [h_total] = one per hydrogen ATOM + the hcount
        of every other atom, folding changes nothing - for every well-formed graph in which no hydrogen bridges two
        non-hydrogen atoms ([one_parent]) and EVERY preserve list; hence each graph its_to_rsmi hands to GraphToMol stands for as many
        hydrogens as the decomposed graph of that side.  (The defect repaired by /repo 3ba7a77 was a violation of
        exactly this law: the old rule, [implicit_hydrogen_old] in proof/C01_HBalProof.v, loses a lone proton - witness in
        C01_hydrogen_balance_nonvacuous: total 3 before, 2 after.) *)
Theorem C01_hydrogen_balance :
  (forall (g : mgraph) (pres : list Z), wf g -> one_parent g -> h_total (implicit_hydrogen g pres) = h_total g) /\
  (forall I : its, wf I ->
     (one_parent (fst (its_decompose I)) -> h_total (fst (its_to_graphs I)) = h_total (fst (its_decompose I))) /\
     (one_parent (snd (its_decompose I)) -> h_total (snd (its_to_graphs I)) = h_total (snd (its_decompose I)))).
Proof. exact (conj hydrogen_balance its_to_graphs_balance). Qed.
Print Assumptions C01_hydrogen_balance.

(** 45. no hydrogen is lost or created by its_to_rsmi . rsmi_to_its: under the premises of theorem 32 (RDKit contract P1-P4, W0)
        and for sides without bridging hydrogens, each side of the written string reads back as a graph standing for exactly as
        many hydrogens (hydrogen atoms + hcounts) as the corresponding side of the input - explicit mapped hydrogens, reacting
        or not, lone or bonded, included *)
Theorem C01_string_hydrogen_balance : forall (rd_read : bool -> String.string -> option rmol)
    (rd_write : bool -> wmol -> option String.string) (ok : mgraph -> Prop),
  (forall w s, rd_write true w = Some s -> has_gt s = false) ->
  ((forall s m, rd_read true s = Some m -> ok (graph_of m)) /\
   (forall g g', ok g ->
      ((forall n, option_map sel5 (label g' n) = option_map sel5 (label g n)) /\ (forall u v, adj g' u v = adj g u v)) -> ok g') /\
   (forall g pres, ok g -> wf g -> ok (implicit_hydrogen g pres)) /\
   (forall g w s, ok g -> wf g -> amap_id g -> graph_to_wmol g = Some w -> rd_write true w = Some s ->
      exists m, rd_read true s = Some m /\ (NoDup (map fst (mapped_nodes m)) /\ simple (mapped_bonds m)) /\ geq_sel (graph_of m) g)) ->
  forall s r p mr mp, rsmi_parts s = Some (r, p) -> rd_read true r = Some mr -> rd_read true p = Some mp ->
  (NoDup (map fst (mapped_nodes mr)) /\ simple (mapped_bonds mr)) ->
  (NoDup (map fst (mapped_nodes mp)) /\ simple (mapped_bonds mp)) ->
  let G := graph_of mr in let H := graph_of mp in
  wf G -> wf H -> same_nodes G H -> orders_pos G -> orders_pos H -> one_parent G -> one_parent H ->
  forall J s', rsmi_to_its_str rd_read default_ropts s = Ok J -> its_to_rsmi_str rd_write true false false J = Ok s' ->
  exists r' p' mr' mp', rsmi_parts s' = Some (r', p') /\ rd_read true r' = Some mr' /\ rd_read true p' = Some mp' /\
    h_total (graph_of mr') = h_total G /\ h_total (graph_of mp') = h_total H.
Proof. exact string_hydrogen_balance. Qed.
Print Assumptions C01_string_hydrogen_balance.

(** 46. h_to_explicit on an ITS (rsmi_to_its(explicit_hydrogen=True), as repaired by /repo 61e730e) conserves the number of
        hydrogens on BOTH sides: the decomposition of the explicit-hydrogen ITS stands, side by side, for as many hydrogens
        (hydrogen atoms + hcounts) as the decomposition of the ITS it was made from - provided no atom that is a hydrogen on
        that side has hydrogens of its own to expand ([h_safe]; always so for RDKit readings).  The first defect (before
        61e730e the product half kept its hcount) was a violation of exactly this law on the product side. *)
Theorem C01_h_to_explicit_balance : forall I : its, wf I ->
  (h_safe i_G (gnodes I) ->
     h_total (fst (its_decompose (fst (h_to_explicit_its I)))) = h_total (fst (its_decompose I))) /\
  (h_safe i_H (gnodes I) ->
     h_total (snd (its_decompose (fst (h_to_explicit_its I)))) = h_total (snd (its_decompose I))).
Proof. exact h_to_explicit_balance. Qed.
Print Assumptions C01_h_to_explicit_balance.

(** 47. MolToGraph.transform with its DEFAULT flags (drop_non_aam=False, use_index_as_atom_map=False - also the defaults of
        smiles_to_graph): no hypothesis on the atom maps is needed; if no two bonds join the same pair of atoms, the result is
        EXACTLY every atom keyed by index + 1 in atom order (labels of the atom, atom_map = its map number, 0 when unmapped) and
        every bond between existing atoms keyed the same way, in bond order (compare theorem 11 for the flags of rsmi_to_graph) *)
Theorem C01_mol_to_graph_index : forall m : rmol,
  (simple (index_bonds m) -> mol_to_graph false false m = Some (index_graph m)) /\
  (forall i a, nth_error (rm_atoms m) i = Some a -> label (index_graph m) (N.of_nat i + 1) = Some (atom_node a)).
Proof. intros m. exact (conj (mol_to_graph_index m) (index_graph_label m)). Qed.
Print Assumptions C01_mol_to_graph_index.

(** 48. GraphToMol after MolToGraph with nothing in between: for a molecule with distinct maps on its mapped atoms and at most
        one bond per pair, the RWMol content GraphToMol builds from the graph MolToGraph made of it is that molecule's mapped
        part: its mapped atoms in atom order with (element, charge, atom map, total H as the explicit count) and one bond per
        bond between mapped atoms, in bond order, joining the same two atoms with the type of its order.  (Aromatic flags and
        'neighbors' are not handed on.)  This reduces the RDKit contract R1 to a statement about RDKit alone. *)
Theorem C01_read_write_content : forall m : rmol,
  (NoDup (map fst (mapped_nodes m)) /\ simple (mapped_bonds m)) -> (forall u v o, In (u, v, o) (mapped_bonds m) -> u <> v) ->
  exists w, graph_to_wmol (graph_of m) = Some w /\
    fst w = map (fun a => WA (ra_el a) (ra_ch a) (Z.of_N (ra_map a)) (ra_hs a)) (filter is_mapped (rm_atoms m)) /\
    length (snd w) = length (mapped_bonds m) /\
    forall k u v o, nth_error (mapped_bonds m) k = Some (u, v, o) ->
      exists i j a b, nth_error (snd w) k = Some (i, j, bond_code o) /\
        nth_error (filter is_mapped (rm_atoms m)) i = Some a /\ ra_map a = u /\
        nth_error (filter is_mapped (rm_atoms m)) j = Some b /\ ra_map b = v.
Proof. exact read_write_content. Qed.
Print Assumptions C01_read_write_content.

(** 49. ... and the RWMol content GraphToMol hands to RDKit stands for as many hydrogens (hydrogen atoms + explicit H counts) as
        the graph it was built from; for the two RWMols of its_to_rsmi: as many as the decomposed sides of the ITS *)
Theorem C01_rwmol_hydrogen_total :
  (forall (g : mgraph) w, wf g -> graph_to_wmol g = Some w ->
     sumZ (fun a => if N.eqb (w_el a) EL_H then 1 else w_hs a) (fst w) = h_total g) /\
  (forall (I : its) wr wp, wf I -> its_to_wmols I = Some (wr, wp) ->
     (one_parent (fst (its_decompose I)) ->
        sumZ (fun a => if N.eqb (w_el a) EL_H then 1 else w_hs a) (fst wr) = h_total (fst (its_decompose I))) /\
     (one_parent (snd (its_decompose I)) ->
        sumZ (fun a => if N.eqb (w_el a) EL_H then 1 else w_hs a) (fst wp) = h_total (snd (its_decompose I)))).
Proof. exact (conj wmol_total its_to_wmols_total). Qed.
Print Assumptions C01_rwmol_hydrogen_total.

(** 50. the executable test the correspondence evaluates on what RDKit reads from the two sides of every corpus reaction, its
        re-rootings and the hand-made reactions (kind str-prem) is sound for ALL reaction-side hypotheses of the string theorems
        15, 18, 27, 32, 33, 45: whenever it evaluates to true, both readings have distinct maps and simple bonds, both molecule
        graphs are well formed, carry the same atom-map set and positive orders, and no hydrogen bridges two other atoms *)
Theorem C01_reaction_test_sound : forall mr mp : rmol, reaction_okb mr mp = true ->
  (NoDup (map fst (mapped_nodes mr)) /\ simple (mapped_bonds mr)) /\ (NoDup (map fst (mapped_nodes mp)) /\ simple (mapped_bonds mp)) /\
  wf (graph_of mr) /\ wf (graph_of mp) /\ same_nodes (graph_of mr) (graph_of mp) /\
  orders_pos (graph_of mr) /\ orders_pos (graph_of mp) /\ one_parent (graph_of mr) /\ one_parent (graph_of mp).
Proof. exact reaction_okb_sound. Qed.
Print Assumptions C01_reaction_test_sound.

(** 51. ... and the second test of the same kind is sound for the hypothesis [h_safe] of theorem 46, on both sides of the ITS of
        the two readings *)
Theorem C01_eh_test_sound : forall mr mp : rmol, eh_okb mr mp = true ->
  h_safe i_G (gnodes (its_construct (graph_of mr) (graph_of mp))) /\ h_safe i_H (gnodes (its_construct (graph_of mr) (graph_of mp))).
Proof. exact eh_okb_sound. Qed.
Print Assumptions C01_eh_test_sound.

(** 52. capstone: for every pair of RDKit readings that passes the executable test of kind str-prem - computed by the model on
        every corpus reaction - the conclusions of the graph-level theorems hold of the very values the correspondence compares
        with the implementation: rsmi_to_its is the ITS of the two molecule graphs, it is well formed, its decomposition
        returns the two graphs (element, aromaticity, hydrogen count, charge, every bond) with atom_map = node id, the two
        graphs handed to GraphToMol stand for exactly the hydrogens of the input sides, and both RWMols are built *)
Theorem C01_capstone : forall mr mp : rmol, reaction_okb mr mp = true ->
  let G := graph_of mr in let H := graph_of mp in
  let I := its_construct G H in
  rsmi_to_its_m mr mp = Some I /\ wf I /\
  geq_sel (fst (its_decompose I)) G /\ geq_sel (snd (its_decompose I)) H /\
  amap_id (fst (its_decompose I)) /\ amap_id (snd (its_decompose I)) /\
  h_total (fst (its_to_graphs I)) = h_total G /\ h_total (snd (its_to_graphs I)) = h_total H /\
  (exists wr wp, its_to_wmols I = Some (wr, wp)).
Proof. exact capstone. Qed.
Print Assumptions C01_capstone.

(** 53. "every reversal" on the WRITER side: for a balanced pair with atom_map = node id in which no atom changes its element,
        the reversed reaction has the same preserve set (the hydrogens of its reaction centre) and its_to_rsmi hands to
        GraphToMol, side for side exchanged, the same two graphs as for the reaction itself *)
Theorem C01_reverse_written : forall G H : mgraph, wf G -> wf H -> same_nodes G H -> amap_id G -> amap_id H ->
  (forall n a b, label G n = Some a -> label H n = Some b -> g_el a = g_el b) ->
  (forall z, In z (hlist (its_construct H G)) <-> In z (hlist (its_construct G H))) /\
  geq (fst (its_to_graphs (its_construct H G))) (snd (its_to_graphs (its_construct G H))) /\
  geq (snd (its_to_graphs (its_construct H G))) (fst (its_to_graphs (its_construct G H))).
Proof. exact reverse_written. Qed.
Print Assumptions C01_reverse_written.

(** 54. theorem 36 for EVERY option value of ITSConstruction.construct (ignore_aromaticity, balance_its, attributes_defaults)
        and both store modes: the ITS depends only on the label and bond maps of the two graphs *)
Theorem C01_extensional_opts : forall (o : copts) (G H G' H' : mgraph), wf G -> wf H -> wf G' -> wf H' -> geq G' G -> geq H' H ->
  geq (its_construct_o o G' H') (its_construct_o o G H) /\ geq (its_construct_S o G' H') (its_construct_S o G H).
Proof. exact construct_ext_opts. Qed.
Print Assumptions C01_extensional_opts.

(** 55. the legacy builder _create_detailed_graph (behind MolToGraph.mol_to_graph(light_weight=False)) with its own bond loop
        `if b and e:` IS transform, for every molecule and every flag combination: no node id is ever 0 *)
Theorem C01_detailed_builder : forall (drop use : bool) (m : rmol), detailed_graph drop use m = mol_to_graph drop use m.
Proof. exact detailed_is_transform. Qed.
Print Assumptions C01_detailed_builder.

(** 56. the legacy builder _create_light_weight_graph (one loop over the atoms, each atom adds its own bonds, add_edge may
        create the other end before its attributes are known; every bond is upserted from both ends): with the flags of
        rsmi_to_graph, for every molecule with distinct maps on its mapped atoms and at most one bond per pair of them, the
        result has exactly the labels and the bonds of transform ([graph_of m], theorem 11) - every node it creates is a mapped
        atom and ends with that atom's labels, no attribute-less node survives, every bond between mapped atoms is there with
        its order and nothing else.  (Invariants of the nested loop: an atom that has had its turn carries its attributes,
        add_edge never overwrites a node, every key is an atom id; every edge present is an edge of transform, and once an
        atom has had its turn its bonds to kept atoms are present.)  For molecules without bonds the builder
        is the node loop of transform, node for node, for EVERY flag combination.  Other flag combinations with bonds:
        theorem 59; compared on every m2g case with api = light (incl. molecules with no / every other atom mapped). *)
Theorem C01_light_builder :
  (forall m : rmol, (NoDup (map fst (mapped_nodes m)) /\ simple (mapped_bonds m)) -> forall g', light_graph true true m = Some g' ->
     (forall n, label g' n = option_map Some (label (graph_of m) n)) /\ (forall u v, adj g' u v = adj (graph_of m) u v)) /\
  (forall (drop use : bool) (m : rmol), rm_bonds m = nil ->
     light_graph drop use m = option_map some_nodes (mol_to_graph drop use m)).
Proof. exact (conj light_is_transform light_no_bonds). Qed.
Print Assumptions C01_light_builder.

(** 57. the hypothesis [orders_pos] of the round trip (theorems 1 and 6) is needed: a stored bond of order 0 (RDKit
        BondType.ZERO; outside "every bond with its order" of the property) is kept by construct as the pair (0, 0) and
        dropped by its_decompose - compared on the kind `malformed` (order-0 edges), not an alarm *)
Theorem C01_order_zero_refuted :
  wf ex_z /\ same_nodes ex_z ex_z /\ ~ orders_pos ex_z /\
  adj (its_construct ex_z ex_z) 1%N 2%N = Some (IE 0 0 0) /\
  adj (fst (its_decompose (its_construct ex_z ex_z))) 1%N 2%N = None /\ adj ex_z 1%N 2%N = Some 0.
Proof. exact order_zero_refuted. Qed.
Print Assumptions C01_order_zero_refuted.

(** 58. MolToGraph.transform in closed form for EVERY flag combination the code accepts: if the ids of the atoms that are
        kept ([kept_atom]: all atoms, or the mapped ones under drop_non_aam) are pairwise distinct - automatic for the default
        flags (theorem 47), "distinct maps" for the flags of rsmi_to_graph (theorem 11), and the condition under which a map
        number never collides with an index + 1 for (drop_non_aam=False, use_index_as_atom_map=True) - and no two bonds join
        the same pair of ids, the result is exactly the kept atoms keyed by their id in atom order and the bonds between kept
        atoms in bond order *)
Theorem C01_mol_to_graph_general : forall (drop use : bool) (m : rmol), drop && negb use = false ->
  NoDup (map fst (gen_nodes drop use m)) -> simple (gen_bonds drop use m) ->
  mol_to_graph drop use m = Some (LG (gen_nodes drop use m) (gen_bonds drop use m)).
Proof. exact mol_to_graph_general. Qed.
Print Assumptions C01_mol_to_graph_general.

(** 59. the light-weight builder for EVERY flag combination the classmethod accepts: under the hypotheses of theorem 58 (ids of
        the kept atoms pairwise distinct, no two bonds on one pair of ids) MolToGraph.mol_to_graph(light_weight=True) and
        transform agree - both return a graph, with the same labels (no attribute-less node survives) and the same bonds.
        Theorem 56 is the instance drop_non_aam = use_index_as_atom_map = True. *)
Theorem C01_light_builder_general : forall (m : rmol) (drop use : bool),
  NoDup (map fst (gen_nodes drop use m)) -> simple (gen_bonds drop use m) -> drop && negb use = false ->
  exists g g', mol_to_graph drop use m = Some g /\ light_graph drop use m = Some g' /\
    (forall n, label g' n = option_map Some (label g n)) /\ (forall u v, adj g' u v = adj g u v).
Proof. exact light_is_transform_general. Qed.
Print Assumptions C01_light_builder_general.

(** 60. summary for the classmethod MolToGraph.mol_to_graph(mol, drop_non_aam, light_weight, use_index_as_atom_map): under the
        hypotheses of theorem 58 both of its builders return what transform returns - the detailed one the identical graph
        (for it no hypothesis is needed, theorem 55), the light-weight one the same labels and bonds *)
Theorem C01_builders_agree : forall (m : rmol) (drop use : bool),
  NoDup (map fst (gen_nodes drop use m)) -> simple (gen_bonds drop use m) -> drop && negb use = false ->
  exists g g', mol_to_graph drop use m = Some g /\ detailed_graph drop use m = Some g /\ light_graph drop use m = Some g' /\
    g = LG (gen_nodes drop use m) (gen_bonds drop use m) /\
    (forall n, label g' n = option_map Some (label g n)) /\ (forall u v, adj g' u v = adj g u v).
Proof. exact builders_agree. Qed.
Print Assumptions C01_builders_agree.

(** the clause "the string round trip returns a reaction with the SAME UNMAPPED reactants and products" *)
From SK Require Import proof.C01_UnmappedDefs proof.C01_Unmapped.

(** 61. graph level, FULL strength, no RDKit premise.  For every balanced pair (well formed, same node set, positive orders,
        atom_map = node id) the two graphs its_to_rsmi hands to the writer are
        (a) the input graphs with the non-centre hydrogens folded, on element, aromaticity, hydrogen count, charge and every
            bond - the identity on everything except atom_map;
        (b) hence the same UNMAPPED molecules as the inputs ([unmapped_eq]: equal as labelled graphs once the atom map is
            dropped and, as RemoveHs does, every hydrogen hanging on another atom is made implicit - folding in two steps is
            folding at once, [fold_twice]);
        (c) with the same fragments: two atoms are connected in the one iff they are connected in the other, so the multiset of
            unmapped fragment graphs is the same, fragment by fragment on the same atoms *)
Theorem C01_unmapped_graph : forall G H : mgraph,
  wf G -> wf H -> same_nodes G H -> orders_pos G -> orders_pos H -> amap_id G -> amap_id H ->
  let I := its_construct G H in
  (geq_sel (fst (its_to_graphs I)) (smi_graph G (hlist I)) /\ geq_sel (snd (its_to_graphs I)) (smi_graph H (hlist I))) /\
  (unmapped_eq (fst (its_to_graphs I)) G /\ unmapped_eq (snd (its_to_graphs I)) H) /\
  (forall u v, (conn (fold_all (fst (its_to_graphs I))) u v <-> conn (fold_all G) u v) /\
               (conn (fold_all (snd (its_to_graphs I))) u v <-> conn (fold_all H) u v)).
Proof. exact unmapped_graph. Qed.
Print Assumptions C01_unmapped_graph.

(** 62. string level, relative to the written-out contracts on RDKit: W0 and P1-P4 of theorem 32, and
        CU "the unmapped form [unm] of a side RDKit reads (atom maps removed, RemoveHs, canonical SMILES of the fragments) is a
            function of the unmapped molecule graph": two sides whose readings are [unmapped_eq] have the same unmapped form
        (weaker than invariance under graph isomorphism: only readings that agree atom map by atom map are compared).
        Then for every string s = r>>p whose sides RDKit reads as a balanced reaction, its_to_rsmi(rsmi_to_its(s)) = r'>>p' with
        unm r' = unm r and unm p' = unm p: the same unmapped reactants and the same unmapped products, side by side.
        NOT proved: W0, P1-P4, CU for the real RDKit (CU is evaluated on every corpus reaction by kind str-unm, theorem 63). *)
Theorem C01_unmapped_string : forall (rd_read : bool -> String.string -> option rmol)
    (rd_write : bool -> wmol -> option String.string) (ok : mgraph -> Prop) (U : Type) (unm : String.string -> U),
  (forall w s, rd_write true w = Some s -> has_gt s = false) ->
  ((forall s m, rd_read true s = Some m -> ok (graph_of m)) /\
   (forall g g', ok g ->
      ((forall n, option_map sel5 (label g' n) = option_map sel5 (label g n)) /\ (forall u v, adj g' u v = adj g u v)) -> ok g') /\
   (forall g pres, ok g -> wf g -> ok (implicit_hydrogen g pres)) /\
   (forall g w s, ok g -> wf g -> amap_id g -> graph_to_wmol g = Some w -> rd_write true w = Some s ->
      exists m, rd_read true s = Some m /\ (NoDup (map fst (mapped_nodes m)) /\ simple (mapped_bonds m)) /\ geq_sel (graph_of m) g)) ->
  (forall s s' m m', rd_read true s = Some m -> rd_read true s' = Some m' ->
     (NoDup (map fst (mapped_nodes m)) /\ simple (mapped_bonds m)) -> (NoDup (map fst (mapped_nodes m')) /\ simple (mapped_bonds m')) ->
     unmapped_eq (graph_of m') (graph_of m) -> unm s' = unm s) ->
  forall s r p mr mp, rsmi_parts s = Some (r, p) -> rd_read true r = Some mr -> rd_read true p = Some mp ->
  (NoDup (map fst (mapped_nodes mr)) /\ simple (mapped_bonds mr)) ->
  (NoDup (map fst (mapped_nodes mp)) /\ simple (mapped_bonds mp)) ->
  let G := graph_of mr in let H := graph_of mp in
  wf G -> wf H -> same_nodes G H -> orders_pos G -> orders_pos H ->
  forall J s', rsmi_to_its_str rd_read default_ropts s = Ok J -> its_to_rsmi_str rd_write true false false J = Ok s' ->
  exists r' p' mr' mp', rsmi_parts s' = Some (r', p') /\ rd_read true r' = Some mr' /\ rd_read true p' = Some mp' /\
    unmapped_eq (graph_of mr') G /\ unmapped_eq (graph_of mp') H /\ unm r' = unm r /\ unm p' = unm p.
Proof. exact unmapped_string. Qed.
Print Assumptions C01_unmapped_string.

(** 63. the executable test the correspondence evaluates on the RDKit readings of the input sides and of the sides its_to_rsmi
        wrote (kind str-unm) is sound for [unmapped_eq] - the hypothesis of contract CU: whenever it is true, CU obliges RDKit to
        give both sides the same unmapped form, and the implementation side of the same case checks that it does *)
Theorem C01_unmapped_test_sound :
  (forall g g' : mgraph, wf g -> wf g' -> geq_selb g g' = true -> geq_sel g g') /\
  (forall m m' : rmol, (NoDup (map fst (mapped_nodes m)) /\ simple (mapped_bonds m)) ->
     (NoDup (map fst (mapped_nodes m')) /\ simple (mapped_bonds m')) ->
     (forall u v o, In (u, v, o) (mapped_bonds m) -> u <> v) -> (forall u v o, In (u, v, o) (mapped_bonds m') -> u <> v) ->
     unmapped_eqb m m' = true -> unmapped_eq (graph_of m) (graph_of m')).
Proof. exact (conj geq_selb_sound unmapped_eqb_sound). Qed.
Print Assumptions C01_unmapped_test_sound.

(** 64. theorem 62 for the writer option its_to_rsmi(its, explicit_hydrogen=True) (SynKit folds nothing; RemoveHs folds when the
        unmapped form is taken), relative to R1, W0 and CU *)
Theorem C01_unmapped_string_explicit : forall (rd_read : bool -> String.string -> option rmol)
    (rd_write : bool -> wmol -> option String.string) (U : Type) (unm : String.string -> U),
  (forall w s, rd_write true w = Some s -> has_gt s = false) ->
  (forall s0 m0 g w s, rd_read true s0 = Some m0 -> wf g -> geq_sel g (graph_of m0) -> amap_id g ->
     graph_to_wmol g = Some w -> rd_write true w = Some s ->
     exists m, rd_read true s = Some m /\ (NoDup (map fst (mapped_nodes m)) /\ simple (mapped_bonds m)) /\ geq_sel (graph_of m) g) ->
  (forall s s' m m', rd_read true s = Some m -> rd_read true s' = Some m' ->
     (NoDup (map fst (mapped_nodes m)) /\ simple (mapped_bonds m)) -> (NoDup (map fst (mapped_nodes m')) /\ simple (mapped_bonds m')) ->
     unmapped_eq (graph_of m') (graph_of m) -> unm s' = unm s) ->
  forall s r p mr mp, rsmi_parts s = Some (r, p) -> rd_read true r = Some mr -> rd_read true p = Some mp ->
  (NoDup (map fst (mapped_nodes mr)) /\ simple (mapped_bonds mr)) ->
  (NoDup (map fst (mapped_nodes mp)) /\ simple (mapped_bonds mp)) ->
  let G := graph_of mr in let H := graph_of mp in
  wf G -> wf H -> same_nodes G H -> orders_pos G -> orders_pos H ->
  forall J s', rsmi_to_its_str rd_read default_ropts s = Ok J -> its_to_rsmi_str rd_write true true false J = Ok s' ->
  exists r' p' mr' mp', rsmi_parts s' = Some (r', p') /\ rd_read true r' = Some mr' /\ rd_read true p' = Some mp' /\
    unmapped_eq (graph_of mr') G /\ unmapped_eq (graph_of mp') H /\ unm r' = unm r /\ unm p' = unm p.
Proof. exact unmapped_string_explicit. Qed.
Print Assumptions C01_unmapped_string_explicit.
