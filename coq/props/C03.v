(** C03 — every reaction proposed by rule application is a genuine instance of the rule.
    Statements only; every proof is [exact <lemma of proof/C03_*.v>].

    Vocabulary.  model/C03_Model.v: [glue host rc m] = SynReactor._glue_graph on one match ([None] = no ITS is
    produced); [its_decompose] = the reactant / product molecule graphs that _to_smarts serialises;
    [invert_template] = SynReactor._invert_template; [synrule] = SynRule.__init__; [explicit_h] = SynReactor._explicit_h;
    [match_rcb host rc m], [wf_hostb], [wf_rcb] = the boolean hypotheses (the match is an injective map of the rule's
    atoms onto host atoms with equal element and charge, enough hydrogens and equal reactant-side bond orders; node ids
    distinct, one entry per unordered atom pair, no loops, host orders > 0, rule orders >= 0) — all three are evaluated
    by [run_c03] on every glued mapping of every correspondence case; [adj] = bond lookup on an unordered pair;
    [peq a b u v] = {a,b} = {u,v}.  Orders are in half-units (1.0 = 2).
    proof/C03_Spec.v: [mol_of_host] (the substrate as a molecule graph), [lift o] = (o, o, 0) (an unchanged bond),
    [bondG] (reactant-side bond of an ITS), [dH] / [dQ] (product-minus-reactant hydrogen count / charge of an ITS
    node), [sumZ] (sum over nodes), [balancedb], [count_el], [total_hc], [total_charge], [elem_count] (atoms of an
    element plus, for hydrogen, the implicit hydrogens), [changed_bonds] / [image_changed_bonds] (clause (c) as sets),
    [edges_closedb], [default_rc], [same_core] / [keepn] / [keepe] (default-mode rule preparation), [new_edges] /
    [new_nodes] / [occurrences] / [pairs_okb] (_explicit_h). *)
From Coq Require Import List NArith ZArith Bool Permutation.
From SK Require Import lib.Tok lib.LGraph model.C03_Model proof.C03_Spec proof.C03_Proof proof.C03_Glue proof.C03_Backward
                       proof.C03_ExplicitH proof.C03_ExplicitShape proof.C03_ExplicitTotal proof.C03_Expand
                       proof.C03_Link proof.C03_Default proof.C03_Iso
                       proof.C03_Skeleton proof.C03_StripCounts
                       proof.C03_Wiring proof.C03_WiringCount proof.C03_PairIds proof.C03_StripExact proof.C03_StripCor
                       proof.C03_PairIdsComplete proof.C03_Wrap proof.C03_DefaultBalance
                       proof.C03_DefaultEnd proof.C03_DefaultWiring
                       model.C03_Order proof.C03_Ord proof.C03_FirstFit proof.C03_OrdEnd
                       model.C03_Reactor proof.C03_ReactorProof proof.C03_ReactorSpec proof.C03_Capstone proof.C03_LinkDefault proof.C03_LinkImplicit proof.C03_LinkBackward
                       proof.C03_NoCrash proof.C03_Total.
Import ListNotations.
Local Open Scope Z_scope.

(** ** (a) the substrate, unchanged, is the reactant side *)

(** the reactant molecule graph of the glued ITS has the substrate's atoms (same ids, same order, same element,
    aromaticity, hydrogen count, charge) and exactly the substrate's bonds *)
Theorem C03_left_is_host : forall (host : hostg) (rc : its) (m : mapping) (T : its),
  wf_hostb host = true -> wf_rcb rc = true -> match_rcb host rc m = true -> glue host rc m = Some T ->
  gnodes (fst (its_decompose T)) = gnodes (mol_of_host host) /\
  (forall a b : N, adj (fst (its_decompose T)) a b = adj host a b).
Proof. exact left_is_host_dec. Qed.
Print Assumptions C03_left_is_host.

(** the same on the ITS itself: every reactant tuple (including 'neighbors') is the host's tuple *)
Theorem C03_left_tuples : forall (host : hostg) (rc : its) (m : mapping) (T : its),
  wf_hostb host = true -> wf_rcb rc = true -> match_rcb host rc m = true -> glue host rc m = Some T ->
  node_ids T = node_ids host /\
  (forall n : N, option_map iG (label T n) = label host n) /\
  (forall a b : N, bondG T a b = adj host a b).
Proof. exact left_is_host. Qed.
Print Assumptions C03_left_tuples.

(** ** (b) conservation *)

(** a balanced rule yields a balanced reaction: every element count (hydrogen: explicit atoms + implicit counts)
    and the total charge agree on the two sides *)
Theorem C03_conserve : forall (host : hostg) (rc : its) (m : mapping) (T : its),
  wf_hostb host = true -> wf_rcb rc = true -> match_rcb host rc m = true -> glue host rc m = Some T ->
  balancedb rc = true ->
  (forall e : N, elem_count e (fst (its_decompose T)) = elem_count e (snd (its_decompose T))) /\
  total_charge (fst (its_decompose T)) = total_charge (snd (its_decompose T)).
Proof. exact conserve_balanced. Qed.
Print Assumptions C03_conserve.

(** in general: atoms never change element, and the reaction gains exactly the hydrogens / charge the rule gains *)
Theorem C03_imbalance_exact : forall (host : hostg) (rc : its) (m : mapping) (T : its),
  wf_hostb host = true -> wf_rcb rc = true -> match_rcb host rc m = true -> glue host rc m = Some T ->
  (forall e : N, count_el e (fst (its_decompose T)) = count_el e (snd (its_decompose T))) /\
  total_hc (snd (its_decompose T)) - total_hc (fst (its_decompose T)) = sumZ dH rc /\
  total_charge (snd (its_decompose T)) - total_charge (fst (its_decompose T)) = sumZ dQ rc.
Proof. exact conserve_counts. Qed.
Print Assumptions C03_imbalance_exact.

(** ** (c) the result differs from the substrate by exactly the template's changes *)

(** bonds: the match is injective; every template bond has an image bond whose order changes by the template's amount;
    every changed bond of the result is such an image (same amount); every other atom pair is bonded as in the host *)
Theorem C03_changes_exact : forall (host : hostg) (rc : its) (m : mapping) (T : its),
  wf_rcb rc = true -> match_rcb host rc m = true -> glue host rc m = Some T ->
  NoDup (map snd m) /\
  (forall (u v : N) (x : iedge), In (u, v, x) (gedges rc) ->
     exists (hu hv : N) (y : iedge),
       mget m u = Some hu /\ mget m v = Some hv /\ adj T hu hv = Some y /\ eH y - eG y = eH x - eG x) /\
  (forall (a b : N) (y : iedge), adj T a b = Some y -> eG y <> eH y ->
     exists (u v : N) (x : iedge) (hu hv : N),
       In (u, v, x) (gedges rc) /\ mget m u = Some hu /\ mget m v = Some hv /\ peq hu hv a b = true /\
       eH y - eG y = eH x - eG x) /\
  (forall a b : N,
     (forall (u v : N) (x : iedge) (hu hv : N),
        In (u, v, x) (gedges rc) -> mget m u = Some hu -> mget m v = Some hv -> peq hu hv a b = false) ->
     adj T a b = option_map lift (adj host a b)).
Proof. exact changes_exact. Qed.
Print Assumptions C03_changes_exact.

(** the same as ONE equation between finite sets (proof/C03_Spec.v: [changed_bonds], [image_changed_bonds]): the changed
    bonds of the result, each as (unordered atom pair, order change), are — up to order, without repetition — the
    images under the match of the rule's changed bonds.  With [C03_changed_atoms] (end atoms carry the rule atoms'
    element and hydrogen change) this is the isomorphism of labelled changed-bond graphs of clause (c). *)
Theorem C03_changed_bonds_iso : forall (host : hostg) (rc : its) (m : mapping) (T : its),
  wf_hostb host = true -> wf_rcb rc = true -> match_rcb host rc m = true -> glue host rc m = Some T ->
  Permutation (changed_bonds T) (image_changed_bonds m rc).
Proof. exact changed_bonds_perm. Qed.
Print Assumptions C03_changed_bonds_iso.

(** no other bond of the substrate is altered (the last clause on its own) *)
Theorem C03_unchanged_elsewhere : forall (host : hostg) (rc : its) (m : mapping) (T : its),
  wf_rcb rc = true -> match_rcb host rc m = true -> glue host rc m = Some T ->
  forall a b : N,
  (forall (u v : N) (x : iedge) (hu hv : N),
     In (u, v, x) (gedges rc) -> mget m u = Some hu -> mget m v = Some hv -> peq hu hv a b = false) ->
  adj T a b = option_map lift (adj host a b).
Proof. exact unchanged_elsewhere_explicit. Qed.
Print Assumptions C03_unchanged_elsewhere.

(** end atoms: a matched atom carries the template atom's element, its hydrogen-count change and its charges;
    an atom outside the match does not change at all *)
Theorem C03_changed_atoms : forall (host : hostg) (rc : its) (m : mapping) (T : its),
  wf_rcb rc = true -> match_rcb host rc m = true -> glue host rc m = Some T ->
  (forall (p : N) (pn : inode) (h : N), In (p, pn) (gnodes rc) -> mget m p = Some h ->
     exists a : inode, label T h = Some a /\ a_el (iG a) = a_el (iG pn) /\ a_el (iH a) = a_el (iG pn) /\ dH a = dH pn /\
                       a_ch (iG a) = a_ch (iG pn) /\ a_ch (iH a) = a_ch (iH pn)) /\
  (forall (h : N) (a : inode), ~ In h (map snd m) -> label T h = Some a -> iH a = iG a).
Proof. exact glued_atoms. Qed.
Print Assumptions C03_changed_atoms.

(** the additive branch exactly: a template edge that forms a bond over an existing host bond adds
    its order to the host's, and an ITS is produced only when the sum is an integral bond order (even in half-units) *)
Theorem C03_additive : forall (host : hostg) (rc : its) (m : mapping) (T : its),
  wf_rcb rc = true -> match_rcb host rc m = true -> glue host rc m = Some T ->
  forall (u v : N) (x : iedge) (hu hv : N) (o : Z),
  In (u, v, x) (gedges rc) -> eG x = 0 -> mget m u = Some hu -> mget m v = Some hv -> adj host hu hv = Some o ->
  adj T hu hv = Some (o, o + eH x, eS x) /\ Z.odd (o + eH x) = false.
Proof. exact additive. Qed.
Print Assumptions C03_additive.

(** ... and that is the ONLY way a valid match proposes no reaction *)
Theorem C03_additive_none_iff : forall (host : hostg) (rc : its) (m : mapping),
  wf_rcb rc = true -> match_rcb host rc m = true ->
  (glue host rc m = None <->
   exists (u v : N) (x : iedge) (hu hv : N) (o : Z),
     In (u, v, x) (gedges rc) /\ eG x = 0 /\ mget m u = Some hu /\ mget m v = Some hv /\
     adj host hu hv = Some o /\ Z.odd (o + eH x) = true).
Proof. exact glue_none_iff. Qed.
Print Assumptions C03_additive_none_iff.

(** standard_order stays order_G - order_H on every bond of the result *)
Theorem C03_std_consistent : forall (host : hostg) (rc : its) (m : mapping) (T : its),
  wf_rcb rc = true -> match_rcb host rc m = true -> glue host rc m = Some T ->
  (forall (u v : N) (x : iedge), In (u, v, x) (gedges rc) -> eS x = eG x - eH x) ->
  forall (a b : N) (y : iedge), adj T a b = Some y -> eS y = eG y - eH y.
Proof. exact std_consistent_glue. Qed.
Print Assumptions C03_std_consistent.

(** ** backward application *)

(** _invert_template swaps the sides of the template (literally), keeps it balanced and well-formed; gluing it on a
    substrate gives an ITS whose reactant side is the substrate (smarts_list then reverses the string: the substrate
    is the product side of the proposed reaction) and whose changed bonds are the images of the ORIGINAL template's
    bonds with the opposite order change *)
Theorem C03_backward : forall (host : hostg) (tpl : its) (m : mapping) (T : its),
  wf_hostb host = true -> wf_rcb tpl = true ->
  match_rcb host (invert_template tpl) m = true -> glue host (invert_template tpl) m = Some T ->
  its_decompose (invert_template tpl) = (snd (its_decompose tpl), fst (its_decompose tpl)) /\
  balancedb (invert_template tpl) = balancedb tpl /\
  (gnodes (fst (its_decompose T)) = gnodes (mol_of_host host) /\
   forall a b : N, adj (fst (its_decompose T)) a b = adj host a b) /\
  (forall (u v : N) (x : iedge), In (u, v, x) (gedges tpl) -> 0 < eG x \/ 0 < eH x ->
     exists (hu hv : N) (y : iedge),
       mget m u = Some hu /\ mget m v = Some hv /\ adj T hu hv = Some y /\ eH y - eG y = - (eH x - eG x)) /\
  (forall (a b : N) (y : iedge), adj T a b = Some y -> eG y <> eH y ->
     exists (u v : N) (x : iedge) (hu hv : N),
       In (u, v, x) (gedges tpl) /\ mget m u = Some hu /\ mget m v = Some hv /\ peq hu hv a b = true /\
       eH y - eG y = - (eH x - eG x)).
Proof. exact backward. Qed.
Print Assumptions C03_backward.

Theorem C03_backward_wf : forall tpl : its, wf_rcb tpl = true -> wf_rcb (invert_template tpl) = true.
Proof. exact invert_wf. Qed.
Print Assumptions C03_backward_wf.

(** ** which rule is glued: in implicit-template mode SynRule.__init__ hands the template itself (and its two
    sides) to the reactor, so the [rc] of the theorems above IS the (possibly inverted) template *)
Theorem C03_synrule_implicit : forall tpl : its, nodupb (node_ids tpl) = true ->
  synrule tpl false = Some (tpl, fst (its_decompose tpl), snd (its_decompose tpl)).
Proof. exact synrule_implicit. Qed.
Print Assumptions C03_synrule_implicit.

(** default mode (SynRule.__init__ with implicit_h=True), template WITHOUT explicit hydrogen atoms: nothing is
    stripped and the rule handed to the reactor is [default_rc tpl] — the template's bonds, elements, aromaticity,
    charges and neighbors with every hydrogen count set to 0 on both sides, so it changes no hydrogen count (hydrogen
    changes must be written with explicit H atoms in this mode).  For templates WITH explicit hydrogens see
    C03_synrule_default_skeleton / _counts / _exact / _pointwise below. *)
Theorem C03_synrule_default_noH : forall tpl : its,
  nodupb (node_ids tpl) = true ->
  forallb (fun p => negb (N.eqb (a_el (iG (snd p))) EL_H) && negb (N.eqb (a_el (iH (snd p))) EL_H)) (gnodes tpl) = true ->
  exists (l r : molg), synrule tpl true = Some (default_rc tpl, l, r).
Proof. exact synrule_default_noH. Qed.
Print Assumptions C03_synrule_default_noH.

Theorem C03_default_rule_facts : forall tpl : its,
  gedges (default_rc tpl) = gedges tpl /\ node_ids (default_rc tpl) = node_ids tpl /\
  sumZ dH (default_rc tpl) = 0 /\ sumZ dQ (default_rc tpl) = sumZ dQ tpl /\
  (forall (k : N) (a : inode), In (k, a) (gnodes (default_rc tpl)) -> a_hc (iG a) = 0 /\ a_hc (iH a) = 0).
Proof. exact default_rc_facts. Qed.
Print Assumptions C03_default_rule_facts.

(** REFUTED for templates that write hydrogen changes implicitly and are used without implicit_temp=True: clause (c)'s
    "hydrogen-count changes of its end atoms" fails — the rule prepared in default mode has no hydrogen change at all
    ([C03_synrule_default_noH]), so a matched atom of the proposed ITS can differ from its template atom in hydrogen
    change although every hypothesis of the glue theorems holds and the template is balanced.  Witness: thioester
    formation [SH:2].[C:4][OH:6] >> [S:2][C:4].[OH2:6] on CH3SH . CH3COOH (known finding
    implicit-template-in-explicit-mode; the docstring asks for implicit_temp=True, the constructor does not enforce it;
    clauses (a), (b) still hold by the theorems above). *)
Theorem C03_default_mode_implicit_template_refuted :
  exists (tpl rc : its) (l r : molg) (host : hostg) (m : mapping) (T : its) (p h : N) (pn a : inode),
    balancedb tpl = true /\ synrule tpl true = Some (rc, l, r) /\
    wf_hostb host = true /\ wf_rcb rc = true /\ match_rcb host rc m = true /\ glue host rc m = Some T /\
    In (p, pn) (gnodes tpl) /\ mget m p = Some h /\ label T h = Some a /\ dH a <> dH pn.
Proof. exact default_mode_implicit_template_refuted. Qed.
Print Assumptions C03_default_mode_implicit_template_refuted.

(** default mode, ANY template (explicit hydrogens allowed) — PARTIAL.  Whatever the three steps of _strip_explicit_h
    decide, the rule handed to the reactor is the template with some explicit HYDROGEN atoms removed: the remaining
    atoms in the same order with the same element, aromaticity, charge and neighbors on both sides (only the hydrogen
    counts, hcount and h_pairs are rewritten) and exactly the template's bonds that touch no removed atom, unchanged.
    So every heavy atom, and every (changed or unchanged) bond between heavy atoms, of the rule is the template's.
    WHICH hydrogens are removed, and that the rewritten hydrogen counts / h_pairs account for exactly the removed ones:
    C03_synrule_default_counts, C03_synrule_default_exact, C03_default_pair_ids, C03_default_pair_ids_complete. *)
Theorem C03_synrule_default_skeleton : forall (tpl rc : its) (l r : molg),
  nodupb (node_ids tpl) = true -> synrule tpl true = Some (rc, l, r) ->
  exists removed : list N,
    (forall h : N, In h removed -> is_H_i tpl h = true) /\
    Forall2 same_core (gnodes rc) (filter (keepn removed) (gnodes tpl)) /\
    gedges rc = filter (keepe removed) (gedges tpl).
Proof. exact synrule_default_skeleton. Qed.
Print Assumptions C03_synrule_default_skeleton.

(** default mode, any template: the hydrogen counts.  Each side graph of the prepared rule (left = the pattern that is
    matched, right) is the corresponding side of the template with the atoms of some list R removed: kept atoms in the
    same order with the same element, aromaticity and charge, the bonds that avoid R, and the hcount of every
    non-hydrogen kept atom = the number of bonds of that side that joined it to the removed atoms (every count starts
    at 0 in this mode); the rule graph's two hydrogen counts are exactly the two sides' hcounts.  I.e. a rule atom's
    hydrogen count on a side is the number of stripped explicit hydrogens bonded to it on that side.
    (Which atoms are removed — the three-step decision procedure: C03_synrule_default_exact; h_pairs:
    C03_default_pair_ids, C03_default_pair_ids_complete.) *)
Theorem C03_synrule_default_counts : forall (tpl rc : its) (l r : molg),
  nodupb (node_ids tpl) = true -> synrule tpl true = Some (rc, l, r) ->
  exists Rl Rr : list N,
    (Forall2 (mrel (sum_cnt (gedges (fst (its_decompose (standardize_hydrogen tpl)))) Rl)) (gnodes l)
             (filter (mkeepn Rl) (gnodes (init_m (fst (its_decompose (standardize_hydrogen tpl)))))) /\
     gedges l = filter (mkeepe Rl) (gedges (fst (its_decompose (standardize_hydrogen tpl))))) /\
    (Forall2 (mrel (sum_cnt (gedges (snd (its_decompose (standardize_hydrogen tpl)))) Rr)) (gnodes r)
             (filter (mkeepn Rr) (gnodes (init_m (snd (its_decompose (standardize_hydrogen tpl)))))) /\
     gedges r = filter (mkeepe Rr) (gedges (snd (its_decompose (standardize_hydrogen tpl))))) /\
    (forall (k : N) (a : inode), In (k, a) (gnodes rc) ->
       exists (la ra : mnode), label l k = Some la /\ label r k = Some ra /\ a_hc (iG a) = m_hc la /\ a_hc (iH a) = m_hc ra).
Proof. exact synrule_default_counts. Qed.
Print Assumptions C03_synrule_default_counts.

(** default mode, templates whose atoms have the same element on both sides (every ITS built from a reaction): the rule
    EXACTLY.  The removed atoms R are precisely the explicit hydrogens that have a non-hydrogen neighbour on the left AND
    on the right side (all removed in step 2, from all three graphs; step 3 removes nothing); the rule graph is the
    template without them (same_core, bonds avoiding R); each side graph is the template's side without them, a kept
    heavy atom's hcount = number of its bonds to R on that side; the rule graph's hydrogen counts are the sides'. *)
Theorem C03_synrule_default_exact : forall (tpl rc : its) (l r : molg),
  nodupb (node_ids tpl) = true -> (forall (k : N) (a : inode), In (k, a) (gnodes tpl) -> a_el (iH a) = a_el (iG a)) ->
  synrule tpl true = Some (rc, l, r) ->
  exists R : list N,
    (forall h : N, In h R <-> is_H_i tpl h = true /\ heavy_nbr (side0 iG eG tpl) h = true /\ heavy_nbr (side0 iH eH tpl) h = true) /\
    (Forall2 same_core (gnodes rc) (filter (keepn R) (gnodes tpl)) /\ gedges rc = filter (keepe R) (gedges tpl)) /\
    (Forall2 (mrel (sum_cnt (gedges (side0 iG eG tpl)) R)) (gnodes l) (filter (mkeepn R) (gnodes (side0 iG eG tpl))) /\
     gedges l = filter (mkeepe R) (gedges (side0 iG eG tpl))) /\
    (Forall2 (mrel (sum_cnt (gedges (side0 iH eH tpl)) R)) (gnodes r) (filter (mkeepn R) (gnodes (side0 iH eH tpl))) /\
     gedges r = filter (mkeepe R) (gedges (side0 iH eH tpl))) /\
    (forall (k : N) (a : inode), In (k, a) (gnodes rc) ->
       exists (la ra : mnode), label l k = Some la /\ label r k = Some ra /\ a_hc (iG a) = m_hc la /\ a_hc (iH a) = m_hc ra).
Proof. exact synrule_default_exact. Qed.
Print Assumptions C03_synrule_default_exact.

(** the same, in the forms other properties use.  Totality: on such a template rule preparation never fails. *)
Theorem C03_synrule_default_total : forall tpl : its,
  nodupb (node_ids tpl) = true -> (forall (k : N) (a : inode), In (k, a) (gnodes tpl) -> a_el (iH a) = a_el (iG a)) ->
  exists (rc : its) (l r : molg), synrule tpl true = Some (rc, l, r).
Proof. exact synrule_default_total. Qed.
Print Assumptions C03_synrule_default_total.

(** atom by atom: the rule's atoms are the template's atoms outside R, in the template's order, on all three graphs; a
    kept atom keeps both tuples up to the hydrogen count, and its two hydrogen counts are the numbers of its left / right
    bonds to the removed hydrogens (0 for a kept hydrogen atom); if every hydrogen atom of the template is removed the
    left graph has no explicit hydrogen left and is itself the pattern that is matched *)
Theorem C03_synrule_default_pointwise : forall (tpl rc : its) (l r : molg),
  nodupb (node_ids tpl) = true -> (forall (k : N) (a : inode), In (k, a) (gnodes tpl) -> a_el (iH a) = a_el (iG a)) ->
  synrule tpl true = Some (rc, l, r) ->
  exists R : list N,
    NoDup R /\
    (forall h : N, In h R <-> is_H_i tpl h = true /\ heavy_nbr (side0 iG eG tpl) h = true /\ heavy_nbr (side0 iH eH tpl) h = true) /\
    node_ids rc = filter (fun n => negb (mem n R)) (node_ids tpl) /\ node_ids l = node_ids rc /\ node_ids r = node_ids rc /\
    NoDup (node_ids rc) /\ gedges rc = filter (keepe R) (gedges tpl) /\
    (forall (k : N) (a0 : inode), label tpl k = Some a0 -> ~ In k R ->
       exists a : inode, label rc k = Some a /\ set_hc (iG a) 0 = set_hc (iG a0) 0 /\ set_hc (iH a) 0 = set_hc (iH a0) 0 /\
                 a_hc (iG a) = (if N.eqb (a_el (iG a0)) EL_H then 0 else sum_cnt (gedges (side0 iG eG tpl)) R k) /\
                 a_hc (iH a) = (if N.eqb (a_el (iG a0)) EL_H then 0 else sum_cnt (gedges (side0 iH eH tpl)) R k)) /\
    ((forall h : N, is_H_i tpl h = true -> In h R) -> has_XH l = false /\ h_to_implicit l = l).
Proof. exact synrule_default_pointwise. Qed.
Print Assumptions C03_synrule_default_pointwise.

(** the counts as sums of adjacency indicators of the template (one bond per atom pair) *)
Theorem C03_sum_cnt_adjacent : forall (sn : inode -> nattr) (se : iedge -> Z) (tpl : its) (R : list N) (k : N),
  simple_edgesb (gedges tpl) = true ->
  sum_cnt (gedges (side0 sn se tpl)) R k
  = Z.of_nat (length (filter (fun h => match adj tpl k h with Some x => 0 <? se x | None => false end) R)).
Proof. exact sum_cnt_adjacent. Qed.
Print Assumptions C03_sum_cnt_adjacent.

(** clause (b) in the default mode, from the template: the total hydrogen change of the prepared rule is the number of
    right-side bonds minus the number of left-side bonds between the removed hydrogens R and the kept non-hydrogen
    atoms K; it is 0 — and then, by [C03_conserve] / [C03_explicit_path], every proposed reaction conserves hydrogen —
    as soon as every removed hydrogen has as many such bonds on the right as on the left (one and one in ordinary
    templates) *)
Theorem C03_default_rule_dH : forall (tpl rc : its) (l r : molg),
  nodupb (node_ids tpl) = true -> (forall (k : N) (a : inode), In (k, a) (gnodes tpl) -> a_el (iH a) = a_el (iG a)) ->
  simple_edgesb (gedges tpl) = true -> synrule tpl true = Some (rc, l, r) ->
  exists R K : list N,
    NoDup R /\ NoDup K /\
    (forall h : N, In h R <-> is_H_i tpl h = true /\ heavy_nbr (side0 iG eG tpl) h = true /\ heavy_nbr (side0 iH eH tpl) h = true) /\
    (forall k : N, In k K <-> In k (node_ids tpl) /\ is_H_i tpl k = false) /\
    sumZ dH rc = fold_right (fun h acc => (countZ (fun k => bonded eH tpl k h) K - countZ (fun k => bonded eG tpl k h) K) + acc) 0 R.
Proof. exact default_rule_dH. Qed.
Print Assumptions C03_default_rule_dH.

Theorem C03_default_rule_H_balanced : forall (tpl rc : its) (l r : molg),
  nodupb (node_ids tpl) = true -> (forall (k : N) (a : inode), In (k, a) (gnodes tpl) -> a_el (iH a) = a_el (iG a)) ->
  simple_edgesb (gedges tpl) = true -> synrule tpl true = Some (rc, l, r) ->
  exists R K : list N,
    NoDup R /\ NoDup K /\
    (forall h : N, In h R <-> is_H_i tpl h = true /\ heavy_nbr (side0 iG eG tpl) h = true /\ heavy_nbr (side0 iH eH tpl) h = true) /\
    (forall k : N, In k K <-> In k (node_ids tpl) /\ is_H_i tpl k = false) /\
    ((forall h : N, In h R -> countZ (fun k => bonded eH tpl k h) K = countZ (fun k => bonded eG tpl k h) K) -> sumZ dH rc = 0).
Proof. exact default_rule_H_balanced. Qed.
Print Assumptions C03_default_rule_H_balanced.

(** ... the charge change of the prepared rule is the template's over the kept atoms ... *)
Theorem C03_default_rule_dQ : forall (tpl rc : its) (l r : molg),
  nodupb (node_ids tpl) = true -> (forall (k : N) (a : inode), In (k, a) (gnodes tpl) -> a_el (iH a) = a_el (iG a)) ->
  synrule tpl true = Some (rc, l, r) ->
  exists R : list N,
    (forall h : N, In h R <-> is_H_i tpl h = true /\ heavy_nbr (side0 iG eG tpl) h = true /\ heavy_nbr (side0 iH eH tpl) h = true) /\
    sumZ dQ rc = sumL dQ (filter (keepn R) (gnodes tpl)).
Proof. exact default_rule_dQ. Qed.
Print Assumptions C03_default_rule_dQ.

(** ... so clause (b) END TO END in the default mode, from a condition on the TEMPLATE alone ([tpl_condition],
    proof/C03_Spec.v: every removed hydrogen keeps its number of bonds to the kept heavy atoms, the kept atoms keep the
    total charge): every reaction proposed through glue + _explicit_h (direct route) or expand + glue + _explicit_h
    conserves every element count including hydrogen and the charge, and has the substrate's composition and bonds *)
Theorem C03_default_end_to_end_direct : forall (tpl rc : its) (l r : molg) (host : hostg) (m : mapping) (T T' : its) (ms : list (N * N)),
  nodupb (node_ids tpl) = true -> (forall (k : N) (a : inode), In (k, a) (gnodes tpl) -> a_el (iH a) = a_el (iG a)) ->
  simple_edgesb (gedges tpl) = true -> synrule tpl true = Some (rc, l, r) -> tpl_condition tpl ->
  wf_hostb host = true -> wf_rcb rc = true -> match_rcb host rc m = true -> glue host rc m = Some T ->
  explicit_h T = Some (T', ms) ->
  (forall e : N, elem_count e (fst (its_decompose T')) = elem_count e (snd (its_decompose T'))) /\
  total_charge (fst (its_decompose T')) = total_charge (snd (its_decompose T')) /\
  (forall e : N, elem_count e (fst (its_decompose T')) = elem_count e (mol_of_host host)) /\
  (forall a b : N, In a (node_ids host) -> In b (node_ids host) -> bondG T' a b = adj host a b).
Proof. exact default_end_to_end_direct. Qed.
Print Assumptions C03_default_end_to_end_direct.

Theorem C03_default_end_to_end_expanded : forall (tpl rc : its) (l r : molg) (host : hostg) (nodes : list N) (m : mapping) (T T' : its) (ms : list (N * N)),
  nodupb (node_ids tpl) = true -> (forall (k : N) (a : inode), In (k, a) (gnodes tpl) -> a_el (iH a) = a_el (iG a)) ->
  simple_edgesb (gedges tpl) = true -> synrule tpl true = Some (rc, l, r) -> tpl_condition tpl ->
  wf_hostb host = true -> wf_hostb (h_to_explicit host nodes) = true -> wf_rcb rc = true ->
  match_rcb (h_to_explicit host nodes) rc m = true -> glue (h_to_explicit host nodes) rc m = Some T ->
  explicit_h T = Some (T', ms) ->
  (forall e : N, elem_count e (fst (its_decompose T')) = elem_count e (snd (its_decompose T'))) /\
  total_charge (fst (its_decompose T')) = total_charge (snd (its_decompose T')) /\
  (forall e : N, elem_count e (fst (its_decompose T')) = elem_count e (mol_of_host host)) /\
  (forall a b : N, In a (node_ids host) -> In b (node_ids host) -> bondG T' a b = adj host a b).
Proof. exact default_end_to_end_expanded. Qed.
Print Assumptions C03_default_end_to_end_expanded.

(** ... and therefore, in default mode, the changed bonds of every proposed ITS (before _explicit_h re-materialises the
    migrating hydrogens) are exactly the images of the template's changed bonds that touch no stripped hydrogen *)
Theorem C03_default_changed_bonds : forall (tpl rc : its) (l r : molg) (host : hostg) (m : mapping) (T : its),
  nodupb (node_ids tpl) = true -> synrule tpl true = Some (rc, l, r) ->
  wf_hostb host = true -> wf_rcb rc = true -> match_rcb host rc m = true -> glue host rc m = Some T ->
  exists removed : list N,
    (forall h : N, In h removed -> is_H_i tpl h = true) /\
    Permutation (changed_bonds T) (flat_map (image_key m) (filter is_changed (filter (keepe removed) (gedges tpl)))).
Proof. exact default_changed_bonds. Qed.
Print Assumptions C03_default_changed_bonds.

(** ** the explicit-hydrogen stage (_explicit_h after gluing) — PARTIAL

    Full statement wanted: (a)-(c) for the graph returned by _explicit_h on the hydrogen-expanded substrate, i.e.
    additionally (i) every re-match produced by _get_explicit_map is again a valid match ([match_rcb]) of the explicit
    pattern on the expanded host — this is VF2 output, checked per case by the correspondence ([match_okb] on every
    re-match), not proved; (ii) the new H atoms realise exactly the template's explicit hydrogens (pairing donors and
    recipients inside one h_pairs component is first-fit, and which H atom of the template each one stands for is
    not tracked by the code).  Proved here: the hydrogen / element / charge bookkeeping of _explicit_h for ANY input
    graph with distinct node ids: donors and recipients are atoms of the graph; both sides keep every element count
    (hydrogen = explicit atoms + implicit counts) and the total charge; no bond between two old atoms is touched; every
    old atom keeps both tuples up to the hydrogen count, its hcount attribute and its h_pairs; exactly one atom is
    added per migration. *)
Theorem C03_explicitH_partial : forall (T T' : its) (ms : list (N * N)),
  NoDup (node_ids T) -> explicit_h T = Some (T', ms) ->
  (forall sd : N * N, In sd ms -> has_node T (fst sd) = true /\ has_node T (snd sd) = true) /\
  (forall e : N, elem_count e (fst (its_decompose T')) = elem_count e (fst (its_decompose T)) /\
                 elem_count e (snd (its_decompose T')) = elem_count e (snd (its_decompose T))) /\
  (total_charge (fst (its_decompose T')) = total_charge (fst (its_decompose T)) /\
   total_charge (snd (its_decompose T')) = total_charge (snd (its_decompose T))) /\
  (forall a b : N, In a (node_ids T) -> In b (node_ids T) -> adj T' a b = adj T a b) /\
  (forall (n : N) (a : inode), label T n = Some a ->
     exists a' : inode, label T' n = Some a' /\
       set_hc (iG a') 0 = set_hc (iG a) 0 /\ set_hc (iH a') 0 = set_hc (iH a) 0 /\ i_hc a' = i_hc a /\ i_hp a' = i_hp a) /\
  length (gnodes T') = (length (gnodes T) + length ms)%nat.
Proof. exact explicit_h_accounting. Qed.
Print Assumptions C03_explicitH_partial.

(** the exact shape of what _explicit_h returns, given its list of migrations [ms] (proof/C03_Spec.v: [new_edges],
    [new_nodes], [occurrences]): the old edge list followed by one donor-H bond (1,0) and one H-recipient bond (0,1) per
    migration; the old atoms followed by the new H atoms (fresh ids max+1, max+2, ...), each labelled as a plain H; every
    old atom's reactant-side / product-side hydrogen count lowered by the number of times it donates / receives *)
Theorem C03_explicitH_shape : forall (T T' : its) (ms : list (N * N)),
  NoDup (node_ids T) -> explicit_h T = Some (T', ms) ->
  gedges T' = gedges T ++ new_edges (N.succ (max_id T)) ms /\
  node_ids T' = node_ids T ++ map fst (new_nodes (N.succ (max_id T)) ms) /\
  (forall (k : N) (a : inode), In (k, a) (new_nodes (N.succ (max_id T)) ms) -> label T' k = Some H_inode) /\
  (forall (n : N) (a : inode), label T n = Some a ->
     exists a' : inode, label T' n = Some a' /\
       a_hc (iG a') = a_hc (iG a) - occurrences n (map fst ms) /\
       a_hc (iH a') = a_hc (iH a) - occurrences n (map snd ms)).
Proof. exact explicit_h_shape. Qed.
Print Assumptions C03_explicitH_shape.

(** when _explicit_h raises (the model's [None]; the oracle's clause explicit-h-crash; it aborts the whole its_list):
    exactly when some connected component of the h_pairs relation has more hydrogens to give (atoms whose reactant
    count exceeds the product count) than to take ([pairs_okb], proof/C03_Spec.v) *)
Theorem C03_explicitH_crash_iff : forall T : its, explicit_h T = None <-> pairs_okb T = false.
Proof. exact explicit_h_crash_iff. Qed.
Print Assumptions C03_explicitH_crash_iff.

(** the WIRING of _explicit_h (proof/C03_Spec.v: [share_pair] = two atoms carry a common h_pairs id; [same_group] = its
    reflexive-transitive closure; [dl_of T n] = reactant-minus-product hydrogen count of atom n): the new bonds are one
    (donor, H) bond (1,0) and one (H, recipient) bond (0,1) per migration, and for EVERY migration the donor has a
    hydrogen surplus, the recipient a deficit, and the two are in the SAME hydrogen-transfer group — never two atoms
    that are not connected through shared pair ids, whatever the order of the atoms in the graph *)
Theorem C03_explicitH_wiring : forall (T T' : its) (ms : list (N * N)),
  NoDup (node_ids T) -> explicit_h T = Some (T', ms) ->
  gedges T' = gedges T ++ new_edges (N.succ (max_id T)) ms /\
  forall sd : N * N, In sd ms ->
    same_group T (fst sd) (snd sd) /\ 0 < dl_of T (fst sd) /\ dl_of T (snd sd) < 0.
Proof. exact explicit_h_wiring. Qed.
Print Assumptions C03_explicitH_wiring.

(** how often each atom is used ([grouped T x] = x belongs to one of the components the pairing works on): a grouped
    atom donates exactly its surplus, receives at most its deficit; an atom outside every group is never used *)
Theorem C03_explicitH_usage : forall (T T' : its) (ms : list (N * N)),
  explicit_h T = Some (T', ms) ->
  forall x : N,
    occurrences x (map fst ms) = (if grouped T x then Z.max 0 (dl_of T x) else 0) /\
    0 <= occurrences x (map snd ms) <= (if grouped T x then Z.max 0 (- dl_of T x) else 0).
Proof. exact explicit_h_usage. Qed.
Print Assumptions C03_explicitH_usage.

(** ... and receives EXACTLY its deficit when every group is exact (as many hydrogens to give as to take) *)
Theorem C03_explicitH_usage_exact : forall (T T' : its) (ms : list (N * N)),
  explicit_h T = Some (T', ms) -> pairs_exactb T = true ->
  forall x : N, occurrences x (map snd ms) = (if grouped T x then Z.max 0 (- dl_of T x) else 0).
Proof. exact explicit_h_usage_exact. Qed.
Print Assumptions C03_explicitH_usage_exact.

(** the grouped atoms are exactly the atoms that carry a pair id *)
Theorem C03_explicitH_grouped_iff : forall (T : its) (x : N),
  grouped T x = true <-> exists (A : inode) (pid : N), In (x, A) (gnodes T) /\ In pid (hp_of A).
Proof. exact grouped_iff. Qed.
Print Assumptions C03_explicitH_grouped_iff.

(** where the pair ids come from and where they go — the link between the groups of [C03_explicitH_wiring] and the
    TEMPLATE's own hydrogen transfers.  Default-mode rule preparation (template without h_pairs of its own): two rule
    atoms share a pair id only if both were bonded to ONE explicit hydrogen atom of the template; gluing copies the
    rule's pair ids onto the matched atoms and nothing else; hence two atoms of a proposed ITS share a pair id only if
    they are the images of two template atoms bonded to one template hydrogen.  (Converse: [C03_default_pair_ids_complete].) *)
Theorem C03_default_pair_ids : forall (tpl rc : its) (l r : molg),
  nodupb (node_ids tpl) = true -> (forall (k : N) (a : inode), In (k, a) (gnodes tpl) -> i_hp a = None) ->
  synrule tpl true = Some (rc, l, r) ->
  forall (x y : N) (A B : inode) (p : N),
    In (x, A) (gnodes rc) -> In (y, B) (gnodes rc) -> In p (hp_of A) -> In p (hp_of B) ->
    exists h : N, is_H_i tpl h = true /\ In x (nbrs tpl h) /\ In y (nbrs tpl h).
Proof. exact synrule_default_pairs. Qed.
Print Assumptions C03_default_pair_ids.

(** ... and conversely (templates with the same element on both sides of every atom): every removed hydrogen has a
    pair id, and EVERY non-hydrogen atom bonded to it in the template — on either side — carries that id in the rule.
    So a donor and a recipient of one template hydrogen always land in one group of [C03_explicitH_wiring]. *)
Theorem C03_default_pair_ids_complete : forall (tpl rc : its) (l r : molg),
  nodupb (node_ids tpl) = true -> (forall (k : N) (a : inode), In (k, a) (gnodes tpl) -> a_el (iH a) = a_el (iG a)) ->
  synrule tpl true = Some (rc, l, r) ->
  forall h : N, is_H_i tpl h = true -> heavy_nbr (side0 iG eG tpl) h = true -> heavy_nbr (side0 iH eH tpl) h = true ->
  exists p : N, forall x : N, In x (nbrs tpl h) -> is_H_i tpl x = false -> has_node tpl x = true ->
                exists A : inode, label rc x = Some A /\ In p (hp_of A).
Proof. exact synrule_default_pairs_complete. Qed.
Print Assumptions C03_default_pair_ids_complete.

Theorem C03_glue_pair_ids : forall (host : hostg) (rc : its) (m : mapping) (T : its) (a b : N),
  wf_hostb host = true -> wf_rcb rc = true -> match_rcb host rc m = true -> glue host rc m = Some T ->
  share_pair T a b ->
  exists (x y : N) (X Y : inode) (p : N),
    mget m x = Some a /\ mget m y = Some b /\ In (x, X) (gnodes rc) /\ In (y, Y) (gnodes rc) /\
    In p (hp_of X) /\ In p (hp_of Y).
Proof. exact glue_share_pair. Qed.
Print Assumptions C03_glue_pair_ids.

Theorem C03_default_wiring_template : forall (tpl rc : its) (l r : molg) (host : hostg) (m : mapping) (T : its) (a b : N),
  nodupb (node_ids tpl) = true -> (forall (k : N) (n : inode), In (k, n) (gnodes tpl) -> i_hp n = None) ->
  synrule tpl true = Some (rc, l, r) ->
  wf_hostb host = true -> wf_rcb rc = true -> match_rcb host rc m = true -> glue host rc m = Some T ->
  share_pair T a b ->
  exists (x y h : N), mget m x = Some a /\ mget m y = Some b /\ is_H_i tpl h = true /\ In x (nbrs tpl h) /\ In y (nbrs tpl h).
Proof. exact default_share_pair_template. Qed.
Print Assumptions C03_default_wiring_template.

(** clause (c) for the hydrogens END TO END in the default mode ([tpl_group], proof/C03_Spec.v: closure of "bonded to one
    explicit hydrogen of the template"): every (donor, recipient) pair wired by _explicit_h is the image under the match
    of two TEMPLATE atoms of one hydrogen-transfer group of the template, the donor with a hydrogen surplus, the recipient
    with a deficit.  (A literal isomorphism with the template's H atoms does not hold in general — first fit may choose
    another partner inside the group — which is why the statement, like the oracle clause its-c-wiring, is about groups.) *)
Theorem C03_default_migrations_in_template_groups :
  forall (tpl rc : its) (l r : molg) (host : hostg) (m : mapping) (T : its),
  nodupb (node_ids tpl) = true -> (forall (k : N) (n : inode), In (k, n) (gnodes tpl) -> i_hp n = None) ->
  synrule tpl true = Some (rc, l, r) ->
  wf_hostb host = true -> wf_rcb rc = true -> match_rcb host rc m = true -> glue host rc m = Some T ->
  forall (T' : its) (ms : list (N * N)), explicit_h T = Some (T', ms) ->
  forall sd : N * N, In sd ms ->
    exists x y : N, mget m x = Some (fst sd) /\ mget m y = Some (snd sd) /\ tpl_group tpl x y /\
                    0 < dl_of T (fst sd) /\ dl_of T (snd sd) < 0.
Proof. exact default_migrations_in_template_groups. Qed.
Print Assumptions C03_default_migrations_in_template_groups.

(** gluing followed by _explicit_h: a balanced rule still yields a balanced reaction whose reactant side has the
    substrate's element counts and, between substrate atoms, exactly the substrate's bonds *)
Theorem C03_explicitH_conserve : forall (host : hostg) (rc : its) (m : mapping) (T T' : its) (ms : list (N * N)),
  wf_hostb host = true -> wf_rcb rc = true -> match_rcb host rc m = true -> glue host rc m = Some T ->
  balancedb rc = true -> explicit_h T = Some (T', ms) ->
  (forall e : N, elem_count e (fst (its_decompose T')) = elem_count e (snd (its_decompose T'))) /\
  total_charge (fst (its_decompose T')) = total_charge (snd (its_decompose T')) /\
  (forall e : N, elem_count e (fst (its_decompose T')) = elem_count e (mol_of_host host)) /\
  (forall a b : N, In a (node_ids host) -> In b (node_ids host) -> bondG T' a b = adj host a b).
Proof. exact explicit_h_conserve. Qed.
Print Assumptions C03_explicitH_conserve.

(** the explicit path starts from the hydrogen-expanded substrate (h_to_explicit on the atoms of the kept match): the
    expansion only re-writes implicit hydrogens as explicit H atoms *)
Theorem C03_expand_host : forall (g : hostg) (nodes : list N), NoDup (node_ids g) ->
  (forall e : N, elem_count e (mol_of_host (h_to_explicit g nodes)) = elem_count e (mol_of_host g)) /\
  total_charge (mol_of_host (h_to_explicit g nodes)) = total_charge (mol_of_host g) /\
  (forall a b : N, In a (node_ids g) -> In b (node_ids g) -> adj (h_to_explicit g nodes) a b = adj g a b) /\
  (forall (n : N) (a : nattr), label g n = Some a ->
     exists a' : nattr, label (h_to_explicit g nodes) n = Some a' /\ set_hc a' 0 = set_hc a 0) /\
  NoDup (node_ids (h_to_explicit g nodes)).
Proof. exact h_to_explicit_accounting. Qed.
Print Assumptions C03_expand_host.

(** the explicit path composed (expand, glue along a re-match, _explicit_h): the reactant side of the result has the
    substrate's element counts and charge and, between substrate atoms, exactly the substrate's bonds; a balanced
    rule gives a balanced reaction.  ([match_rcb] of the re-match on the expanded host is the premise that stands for
    _get_explicit_map / VF2; it is evaluated by the correspondence on every re-match.) *)
Theorem C03_explicit_path : forall (host : hostg) (nodes : list N) (rc : its) (m : mapping) (T T' : its) (ms : list (N * N)),
  wf_hostb host = true -> wf_hostb (h_to_explicit host nodes) = true -> wf_rcb rc = true ->
  match_rcb (h_to_explicit host nodes) rc m = true -> glue (h_to_explicit host nodes) rc m = Some T ->
  explicit_h T = Some (T', ms) ->
  (forall e : N, elem_count e (fst (its_decompose T')) = elem_count e (mol_of_host host)) /\
  total_charge (fst (its_decompose T')) = total_charge (mol_of_host host) /\
  (forall a b : N, In a (node_ids host) -> In b (node_ids host) -> bondG T' a b = adj host a b) /\
  (balancedb rc = true ->
     (forall e : N, elem_count e (fst (its_decompose T')) = elem_count e (snd (its_decompose T'))) /\
     total_charge (fst (its_decompose T')) = total_charge (snd (its_decompose T'))).
Proof. exact explicit_path. Qed.
Print Assumptions C03_explicit_path.

(** ** a template handed over as a SynRule OBJECT (SynReactor._wrap_template): forward the rule is
    used as it is; backward the prepared rule graph is inverted and not prepared a second time — the rule that is glued
    is the prepared rule with its two sides swapped, so [C03_backward] applies with the prepared rule graph as [tpl] *)
Theorem C03_wrap_rule : forall (implicit_temp : bool) (rc : its) (l r : molg),
  wrap_template_rule false implicit_temp (rc, l, r) = Some (rc, l, r) /\
  (nodupb (node_ids rc) = true ->
   wrap_template_rule true implicit_temp (rc, l, r)
   = Some (invert_template rc, snd (its_decompose rc), fst (its_decompose rc))).
Proof. exact wrap_rule_spec. Qed.
Print Assumptions C03_wrap_rule.

(** ** where the hypothesis comes from: a mapping accepted by the matcher's node / edge predicates on the rule's
    reactant side ([match_okb]: the contract of SubgraphSearchEngine, see C06) is a valid match of the rule, provided
    every bond of the rule joins two atoms of the rule *)
Theorem C03_match_link : forall (host : hostg) (rc : its) (m : mapping),
  edges_closedb rc = true -> match_okb host (fst (its_decompose rc)) m = true -> match_rcb host rc m = true.
Proof. exact match_okb_rcb. Qed.
Print Assumptions C03_match_link.

(** ** _explicit_h for EVERY visiting order of a hydrogen-transfer group (model/C03_Order.v).
    The code walks the atoms of one group in the order of a Python SET (CPython's hash-table order: {1, 8, 2, 9} is visited
    8, 1, 2, 9), not in sorted order as [explicit_h] does; with two donors and two recipients in one group the partners
    differ (proof/C03_OrdEnd.v, ex_ord_changes_wiring).  [explicit_h_ord ord] takes the visiting order as a parameter;
    the correspondence runs it with [ord_of tbl] (the orders recorded from the implementation, each used only for a
    component with exactly its atoms, sorted order otherwise).  Everything above about [explicit_h] holds for every [ord]
    that returns a duplicate-free rearrangement of its argument. *)

(** [explicit_h] is the instance "sorted order" *)
Theorem C03_explicitH_ord_sorted : forall T : its, explicit_h_ord sort_N T = explicit_h T.
Proof. exact explicit_h_ord_sort. Qed.
Print Assumptions C03_explicitH_ord_sorted.

(** the order function of the correspondence is such a rearrangement, whatever the table *)
Theorem C03_ord_of_rearranges : forall (tbl : list (list N)) (l : list N),
  (forall x : N, In x (ord_of tbl l) <-> In x l) /\ (NoDup l -> NoDup (ord_of tbl l)).
Proof. intros tbl l. split; [intros x; apply ord_of_in|apply ord_of_nodup]. Qed.
Print Assumptions C03_ord_of_rearranges.

(** accounting and shape (the statements of C03_explicitH_partial and C03_explicitH_shape) for every order *)
Theorem C03_explicitH_ord_partial : forall (ord : list N -> list N),
  (forall (l : list N) (x : N), In x (ord l) <-> In x l) ->
  forall (T T' : its) (ms : list (N * N)),
  NoDup (node_ids T) -> explicit_h_ord ord T = Some (T', ms) ->
  (forall sd : N * N, In sd ms -> has_node T (fst sd) = true /\ has_node T (snd sd) = true) /\
  (forall e : N, elem_count e (fst (its_decompose T')) = elem_count e (fst (its_decompose T)) /\
                 elem_count e (snd (its_decompose T')) = elem_count e (snd (its_decompose T))) /\
  (total_charge (fst (its_decompose T')) = total_charge (fst (its_decompose T)) /\
   total_charge (snd (its_decompose T')) = total_charge (snd (its_decompose T))) /\
  (forall a b : N, In a (node_ids T) -> In b (node_ids T) -> adj T' a b = adj T a b) /\
  (forall (n : N) (a : inode), label T n = Some a ->
     exists a' : inode, label T' n = Some a' /\
       set_hc (iG a') 0 = set_hc (iG a) 0 /\ set_hc (iH a') 0 = set_hc (iH a) 0 /\ i_hc a' = i_hc a /\ i_hp a' = i_hp a) /\
  length (gnodes T') = (length (gnodes T) + length ms)%nat.
Proof. exact explicit_h_ord_accounting. Qed.
Print Assumptions C03_explicitH_ord_partial.

Theorem C03_explicitH_ord_shape : forall (ord : list N -> list N),
  (forall (l : list N) (x : N), In x (ord l) <-> In x l) ->
  forall (T T' : its) (ms : list (N * N)),
  NoDup (node_ids T) -> explicit_h_ord ord T = Some (T', ms) ->
  gedges T' = gedges T ++ new_edges (N.succ (max_id T)) ms /\
  node_ids T' = node_ids T ++ map fst (new_nodes (N.succ (max_id T)) ms) /\
  (forall (k : N) (a : inode), In (k, a) (new_nodes (N.succ (max_id T)) ms) -> label T' k = Some H_inode) /\
  (forall (n : N) (a : inode), label T n = Some a ->
     exists a' : inode, label T' n = Some a' /\
       a_hc (iG a') = a_hc (iG a) - occurrences n (map fst ms) /\
       a_hc (iH a') = a_hc (iH a) - occurrences n (map snd ms)).
Proof. exact explicit_h_ord_shape. Qed.
Print Assumptions C03_explicitH_ord_shape.

(** the wiring stays inside one group for every order: donor with a surplus, recipient with a deficit, same group *)
Theorem C03_explicitH_ord_wiring : forall (ord : list N -> list N),
  (forall (l : list N) (x : N), In x (ord l) <-> In x l) ->
  forall (T T' : its) (ms : list (N * N)),
  NoDup (node_ids T) -> explicit_h_ord ord T = Some (T', ms) ->
  gedges T' = gedges T ++ new_edges (N.succ (max_id T)) ms /\
  forall sd : N * N, In sd ms ->
    same_group T (fst sd) (snd sd) /\ 0 < dl_of T (fst sd) /\ dl_of T (snd sd) < 0.
Proof. exact explicit_h_ord_wiring. Qed.
Print Assumptions C03_explicitH_ord_wiring.

(** usage counts for every order; and against the sorted order: every atom gives the same number of hydrogens, and (exact
    groups) takes the same number — the visiting order changes only WHO is paired with WHOM *)
Theorem C03_explicitH_ord_usage : forall (ord : list N -> list N),
  (forall (l : list N) (x : N), In x (ord l) <-> In x l) -> (forall l : list N, NoDup l -> NoDup (ord l)) ->
  forall (T T' : its) (ms : list (N * N)),
  explicit_h_ord ord T = Some (T', ms) ->
  (forall x : N,
    occurrences x (map fst ms) = (if grouped T x then Z.max 0 (dl_of T x) else 0) /\
    0 <= occurrences x (map snd ms) <= (if grouped T x then Z.max 0 (- dl_of T x) else 0)) /\
  (pairs_exactb T = true ->
   forall x : N, occurrences x (map snd ms) = (if grouped T x then Z.max 0 (- dl_of T x) else 0)) /\
  (forall (T0 : its) (ms0 : list (N * N)), explicit_h T = Some (T0, ms0) ->
     (forall x : N, occurrences x (map fst ms) = occurrences x (map fst ms0)) /\
     (pairs_exactb T = true -> forall x : N, occurrences x (map snd ms) = occurrences x (map snd ms0))).
Proof.
  intros ord Hin Hnd T T' ms H. split; [|split].
  - exact (explicit_h_ord_usage ord Hin Hnd T T' ms H).
  - exact (explicit_h_ord_usage_exact ord Hin Hnd T T' ms H).
  - intros T0 ms0 H0. exact (explicit_h_ord_same_usage ord Hin Hnd T T' ms T0 ms0 H H0).
Qed.
Print Assumptions C03_explicitH_ord_usage.

(** whether _explicit_h raises does not depend on the order *)
Theorem C03_explicitH_ord_crash_iff : forall (ord : list N -> list N),
  (forall (l : list N) (x : N), In x (ord l) <-> In x l) -> (forall l : list N, NoDup l -> NoDup (ord l)) ->
  forall T : its, explicit_h_ord ord T = None <-> pairs_okb T = false.
Proof. exact explicit_h_ord_crash_iff. Qed.
Print Assumptions C03_explicitH_ord_crash_iff.

(** which partner is chosen INSIDE a group, in closed form.  [slots f l] = every atom of l repeated
    f(atom) times; [zip_migrations T comp] = combine (donors of comp in visiting order, each repeated as often as its
    surplus) (recipients in visiting order, each as often as its deficit): the k-th hydrogen given goes to the k-th free
    place.  First fit IS that zip, and it exists exactly when the places suffice; the list of migrations of the whole
    graph is the concatenation of the groups' zips *)
Theorem C03_first_fit_zip : forall (T : its) (comp : list N),
  migrations_of T comp = (if comp_balancedb T comp then Some (zip_migrations T comp) else None) /\
  zip_migrations T comp =
    combine (slots (dl_of T) (filter (fun n => 0 <? dl_of T n) comp))
            (slots (fun n => - dl_of T n) (filter (fun n => dl_of T n <? 0) comp)).
Proof. intros T comp. split; [apply migrations_of_closed|apply zip_migrations_eq]. Qed.
Print Assumptions C03_first_fit_zip.

Theorem C03_explicitH_ord_closed_form : forall (ord : list N -> list N) (T T' : its) (ms : list (N * N)),
  explicit_h_ord ord T = Some (T', ms) ->
  ms = flat_map (fun c => zip_migrations T (ord c)) (components (pair_to_nodes T)) /\ T' = apply_migrations T ms.
Proof. exact explicit_h_ord_migrations. Qed.
Print Assumptions C03_explicitH_ord_closed_form.

(** the bit the correspondence evaluates on every glued graph (pairing = closed form on every group) is always true *)
Theorem C03_zip_okb : forall (ord : list N -> list N) (T : its), zip_okb ord T = true.
Proof. exact zip_okb_true. Qed.
Print Assumptions C03_zip_okb.

(** glue then _explicit_h, and expand / glue / _explicit_h (C03_explicitH_conserve, C03_explicit_path) for every order *)
Theorem C03_explicitH_ord_conserve : forall (ord : list N -> list N),
  (forall (l : list N) (x : N), In x (ord l) <-> In x l) ->
  forall (host : hostg) (rc : its) (m : mapping) (T T' : its) (ms : list (N * N)),
  wf_hostb host = true -> wf_rcb rc = true -> match_rcb host rc m = true -> glue host rc m = Some T ->
  balancedb rc = true -> explicit_h_ord ord T = Some (T', ms) ->
  (forall e : N, elem_count e (fst (its_decompose T')) = elem_count e (snd (its_decompose T'))) /\
  total_charge (fst (its_decompose T')) = total_charge (snd (its_decompose T')) /\
  (forall e : N, elem_count e (fst (its_decompose T')) = elem_count e (mol_of_host host)) /\
  (forall a b : N, In a (node_ids host) -> In b (node_ids host) -> bondG T' a b = adj host a b).
Proof. exact explicit_h_ord_conserve. Qed.
Print Assumptions C03_explicitH_ord_conserve.

Theorem C03_explicit_path_ord : forall (ord : list N -> list N),
  (forall (l : list N) (x : N), In x (ord l) <-> In x l) ->
  forall (host : hostg) (nodes : list N) (rc : its) (m : mapping) (T T' : its) (ms : list (N * N)),
  wf_hostb host = true -> wf_hostb (h_to_explicit host nodes) = true -> wf_rcb rc = true ->
  match_rcb (h_to_explicit host nodes) rc m = true -> glue (h_to_explicit host nodes) rc m = Some T ->
  explicit_h_ord ord T = Some (T', ms) ->
  (forall e : N, elem_count e (fst (its_decompose T')) = elem_count e (mol_of_host host)) /\
  total_charge (fst (its_decompose T')) = total_charge (mol_of_host host) /\
  (forall a b : N, In a (node_ids host) -> In b (node_ids host) -> bondG T' a b = adj host a b) /\
  (balancedb rc = true ->
     (forall e : N, elem_count e (fst (its_decompose T')) = elem_count e (snd (its_decompose T'))) /\
     total_charge (fst (its_decompose T')) = total_charge (snd (its_decompose T'))).
Proof. exact explicit_path_ord. Qed.
Print Assumptions C03_explicit_path_ord.

(** the default mode end to end (C03_default_end_to_end_direct / _expanded, C03_default_migrations_in_template_groups) for
    every order: conservation from the template's condition, and every re-materialised hydrogen moves inside one
    hydrogen-transfer group of the TEMPLATE *)
Theorem C03_default_end_to_end_ord : forall (ord : list N -> list N),
  (forall (l : list N) (x : N), In x (ord l) <-> In x l) ->
  forall (tpl rc : its) (l r : molg) (host : hostg) (nodes : list N) (m : mapping) (T T' : its) (ms : list (N * N)),
  nodupb (node_ids tpl) = true -> (forall (k : N) (a : inode), In (k, a) (gnodes tpl) -> a_el (iH a) = a_el (iG a)) ->
  simple_edgesb (gedges tpl) = true -> synrule tpl true = Some (rc, l, r) -> tpl_condition tpl ->
  wf_hostb host = true -> wf_rcb rc = true ->
  ((match_rcb host rc m = true /\ glue host rc m = Some T) \/
   (wf_hostb (h_to_explicit host nodes) = true /\ match_rcb (h_to_explicit host nodes) rc m = true /\
    glue (h_to_explicit host nodes) rc m = Some T)) ->
  explicit_h_ord ord T = Some (T', ms) ->
  (forall e : N, elem_count e (fst (its_decompose T')) = elem_count e (snd (its_decompose T'))) /\
  total_charge (fst (its_decompose T')) = total_charge (snd (its_decompose T')) /\
  (forall e : N, elem_count e (fst (its_decompose T')) = elem_count e (mol_of_host host)) /\
  (forall a b : N, In a (node_ids host) -> In b (node_ids host) -> bondG T' a b = adj host a b).
Proof.
  intros ord Hin tpl rc l r host nodes m T T' ms Hnd Hel Hs H Hc Hwh Hwr [[Hm Hg]|[Hwx [Hm Hg]]] He.
  - exact (default_end_to_end_direct_ord ord Hin tpl rc l r host m T T' ms Hnd Hel Hs H Hc Hwh Hwr Hm Hg He).
  - exact (default_end_to_end_expanded_ord ord Hin tpl rc l r host nodes m T T' ms Hnd Hel Hs H Hc Hwh Hwx Hwr Hm Hg He).
Qed.
Print Assumptions C03_default_end_to_end_ord.

Theorem C03_default_migrations_in_template_groups_ord : forall (ord : list N -> list N),
  (forall (l : list N) (x : N), In x (ord l) <-> In x l) ->
  forall (tpl rc : its) (l r : molg) (host : hostg) (m : mapping) (T : its),
  nodupb (node_ids tpl) = true -> (forall (k : N) (n : inode), In (k, n) (gnodes tpl) -> i_hp n = None) ->
  synrule tpl true = Some (rc, l, r) ->
  wf_hostb host = true -> wf_rcb rc = true -> match_rcb host rc m = true -> glue host rc m = Some T ->
  forall (T' : its) (ms : list (N * N)), explicit_h_ord ord T = Some (T', ms) ->
  forall sd : N * N, In sd ms ->
    exists x y : N, mget m x = Some (fst sd) /\ mget m y = Some (snd sd) /\ tpl_group tpl x y /\
                    0 < dl_of T (fst sd) /\ dl_of T (snd sd) < 0.
Proof. exact default_migrations_in_template_groups_ord. Qed.
Print Assumptions C03_default_migrations_in_template_groups_ord.

(** ** the reactor as a state machine (model/C03_Reactor.v): the lazily cached _rule / _mappings (+ the
    explicit-hydrogen flag) / _its / _smarts behind rule, mappings, mapping_count, its_list, smarts_list, smiles_list and
    their aliases.  [step inp st op] = one attribute read (new caches, value); [run_ops] = a script of reads; [spec_val inp op]
    = the value the INPUTS determine (template, substrate, options; oracle inputs: the matcher's mappings and re-matches,
    the visiting orders, RDKit's strings); [nocrash inp] = no _explicit_h call raises.  The correspondence runs scripts of
    reads on fresh reactors ([run_reads]) and compares every value. *)

(** whatever is read, in whatever order and however often, on a fresh reactor: every read returns the value the inputs
    determine; and one step from ANY state whose caches hold only such values keeps that invariant ([inv0]) *)
Theorem C03_reads_stable : forall (inp : rin), nocrash inp ->
  (forall ops : list rop, run_ops inp rs0 ops = map (spec_val inp) ops) /\
  (forall (st : rstate) (op : rop), inv0 inp st ->
     forall (st' : rstate) (v : rval), step inp st op = (st', v) -> v = spec_val inp op /\ inv0 inp st').
Proof.
  intros inp Hnc. split; [intros ops; exact (reads_stable inp ops Hnc)|].
  intros st op Hinv st' v H. exact (step_spec inp st op Hnc Hinv st' v H).
Qed.
Print Assumptions C03_reads_stable.

(** its_list on a FRESH reactor takes the route the pattern calls for: `self.mappings` is evaluated (and sets the flag)
    before the flag is read — the class of "first thing asked of a fresh reactor" changes *)
Theorem C03_fresh_its_route : forall (inp : rin) (rc : its) (l r : molg),
  i_rule inp = Some (rc, l, r) -> nocrash inp ->
  forall (st' : rstate) (v : rval), step inp rs0 Oits = (st', v) ->
    s_flag st' = has_XH l /\
    v = match spec_its inp with Some gs => Vits gs | None => Vraise end /\
    (i_explicit inp = false -> v = Vits (map fst (glue_all (has_XH l) (i_host inp) rc (i_calls inp) (i_tbls inp)))).
Proof. exact fresh_its_route. Qed.
Print Assumptions C03_fresh_its_route.

(** the code as it is: when _explicit_h raises (a group with more hydrogens to give than to take), the first read of
    its_list raises and every later read silently returns the GLUED graphs, without the explicit-hydrogen stage — the
    cache was filled before the stage ran.  Compared with the implementation read by read on every run (families script-raw,
    synthetic-raw: hand-written rules whose group has more hydrogens to give than to take).  Not a C03 violation (the
    graphs returned are the rule's instances in count form; rules prepared from reaction templates never raise), recorded
    as an observation about stale state after an exception *)
Theorem C03_reads_after_crash : forall (inp : rin) (rc : its) (l r : molg),
  i_rule inp = Some (rc, l, r) -> i_explicit inp = true -> explicit_all (spec_glued inp) = None ->
  run_ops inp rs0 [Oits; Oits; Oits] = [Vraise; Vits (map fst (spec_glued inp)); Vits (map fst (spec_glued inp))].
Proof. exact reads_after_crash. Qed.
Print Assumptions C03_reads_after_crash.

(** the string half of the serialisation, for RDKit strings without '>' (premise: SMILES never contain it): entry by entry,
    smarts_list holds "r>>p" forwards and "p>>r" backwards for every result RDKit could write on both sides (the others are
    dropped), and smiles_list extracts p forwards and r — the substrate side — backwards.  With C03_left_is_host (r is
    the serialisation of the substrate side of the ITS) this is clause (a) at the level of the returned strings:
    substrate first when applied forwards, substrate last when applied backwards *)
Theorem C03_smarts_direction : forall (ser : nat -> its -> option str * option str),
  (forall (i : nat) (g : its) (r p : str), ser i g = (Some r, Some p) -> ~ In GT r /\ ~ In GT p) ->
  forall (invert : bool) (gs : list its),
    smarts_of invert ser gs = flat_map (fun x : list str => x) (mapi (fun i g => entry invert (ser i g)) O gs) /\
    map last_part (smarts_of invert ser gs) = flat_map (fun x : list str => x) (mapi (fun i g => side_entry invert (ser i g)) O gs).
Proof. exact smarts_of_spec. Qed.
Print Assumptions C03_smarts_direction.

(** reverse_reaction / split(">>") on such strings *)
Theorem C03_reverse_reaction : forall r p : str, ~ In GT r -> ~ In GT p ->
  split_gt (join_gt r p) = [r; p] /\ reverse_reaction (join_gt r p) = join_gt p r /\
  reverse_reaction (reverse_reaction (join_gt r p)) = join_gt r p /\ last_part (join_gt r p) = p.
Proof.
  intros r p Hr Hp. split; [exact (split_join r p Hr Hp)|]. split; [exact (reverse_join r p Hr Hp)|].
  split; [exact (reverse_involutive r p Hr Hp)|exact (last_join r p Hr Hp)].
Qed.
Print Assumptions C03_reverse_reaction.

(** ** capstone: every graph its_list returns is a genuine instance of the rule — the property itself, stated about the
    list the reactor returns (whatever was read before, C03_reads_stable), for every substrate, rule, set of matcher answers,
    hydrogen mode (explicit stage on / off, direct / expanded route) and every visiting order.
    Hypotheses: the inputs are well formed and the matcher's answers are valid matches ([call_okb], model/C03_Reactor.v;
    evaluated on every scripted case through [hyps_okb]).  Conclusion, for every g in the list ([instance_of],
    proof/C03_ReactorSpec.v, written out here): there are a base graph hb (the substrate, or the substrate with some
    implicit hydrogens written as H atoms), a valid match m and the glued graph T with g = T or g = _explicit_h(T), and
    (a) the reactant side of g has the SUBSTRATE's element counts (hydrogen = atoms + counts), total charge and — between
        substrate atoms — exactly the substrate's bonds; atom by atom, every substrate atom is an atom of g whose reactant
        tuple is the substrate's up to the hydrogen count (a count may have become explicit H atoms);
    (b) if the rule is balanced both sides of g have the same element counts and charge;
    (c) every matched atom of T carries the rule atom's element, hydrogen-count change and charges and every other atom is
        unchanged; the changed bonds of T are exactly the m-images of the rule's changed bonds with equal order changes,
        and g has in addition only the donor-H / H-recipient bonds of the re-materialised hydrogens, each joining a donor
        and a recipient of ONE hydrogen-transfer group. *)
Theorem C03_its_list_instances : forall (inp : rin) (rc : its) (l r : molg) (gs : list its),
  i_rule inp = Some (rc, l, r) -> wf_hostb (i_host inp) = true -> wf_rcb rc = true ->
  forallb (call_okb (has_XH l) (i_host inp) rc) (i_calls inp) = true ->
  spec_its inp = Some gs ->
  forall g : its, In g gs ->
  exists (hb : hostg) (m : mapping) (T : its) (tbl : list (list N)),
    (hb = i_host inp \/ exists nodes : list N, hb = h_to_explicit (i_host inp) nodes) /\
    wf_hostb hb = true /\ match_rcb hb rc m = true /\ glue hb rc m = Some T /\
    (g = T \/ exists ms : list (N * N), explicit_h_ord (ord_of tbl) T = Some (g, ms)) /\
    (forall e : N, elem_count e (fst (its_decompose g)) = elem_count e (mol_of_host (i_host inp))) /\
    total_charge (fst (its_decompose g)) = total_charge (mol_of_host (i_host inp)) /\
    (forall a b : N, In a (node_ids (i_host inp)) -> In b (node_ids (i_host inp)) -> bondG g a b = adj (i_host inp) a b) /\
    (forall (n : N) (a : nattr), label (i_host inp) n = Some a ->
       exists a' : inode, label g n = Some a' /\ set_hc (iG a') 0 = set_hc a 0) /\
    (balancedb rc = true ->
       (forall e : N, elem_count e (fst (its_decompose g)) = elem_count e (snd (its_decompose g))) /\
       total_charge (fst (its_decompose g)) = total_charge (snd (its_decompose g))) /\
    (forall (p : N) (pn : inode) (h : N), In (p, pn) (gnodes rc) -> mget m p = Some h ->
       exists a : inode, label T h = Some a /\ a_el (iG a) = a_el (iG pn) /\ a_el (iH a) = a_el (iG pn) /\ dH a = dH pn /\
                         a_ch (iG a) = a_ch (iG pn) /\ a_ch (iH a) = a_ch (iH pn)) /\
    (forall (h : N) (a : inode), ~ In h (map snd m) -> label T h = Some a -> iH a = iG a) /\
    Permutation (changed_bonds T) (image_changed_bonds m rc) /\
    (forall ms : list (N * N), explicit_h_ord (ord_of tbl) T = Some (g, ms) ->
       changed_bonds g = changed_bonds T ++ map bond_key (new_edges (N.succ (max_id T)) ms) /\
       forall sd : N * N, In sd ms -> same_group T (fst sd) (snd sd) /\ 0 < dl_of T (fst sd) /\ dl_of T (snd sd) < 0).
Proof. exact its_list_sound. Qed.
Print Assumptions C03_its_list_instances.

(** ... and through the state machine: every graph in every list any script of reads returns on a fresh reactor *)
Theorem C03_reads_return_instances : forall (inp : rin) (rc : its) (l r : molg),
  i_rule inp = Some (rc, l, r) -> wf_hostb (i_host inp) = true -> wf_rcb rc = true ->
  forallb (call_okb (has_XH l) (i_host inp) rc) (i_calls inp) = true -> nocrash inp ->
  forall (ops : list rop) (gs : list its), In (Vits gs) (run_ops inp rs0 ops) ->
  forall g : its, In g gs -> instance_of (i_host inp) rc g.
Proof. exact reads_return_instances. Qed.
Print Assumptions C03_reads_return_instances.

(** ... and from the TEMPLATE in the default mode (the rule glued is [synrule tpl true]): if the template satisfies
    [tpl_condition] (every stripped hydrogen keeps its number of bonds to the kept heavy atoms, the kept atoms keep the
    total charge — a condition on the template alone) EVERY graph of its_list conserves every element count including
    hydrogen and the total charge and has the substrate's composition and bonds on its reactant side: clauses (a) and (b)
    end to end, template -> prepared rule -> matches -> (expansion) -> gluing -> _explicit_h -> list returned *)
Theorem C03_its_list_default_mode : forall (inp : rin) (tpl rc : its) (l r : molg) (gs : list its),
  i_rule inp = synrule tpl true -> synrule tpl true = Some (rc, l, r) ->
  nodupb (node_ids tpl) = true -> (forall (k : N) (a : inode), In (k, a) (gnodes tpl) -> a_el (iH a) = a_el (iG a)) ->
  simple_edgesb (gedges tpl) = true -> tpl_condition tpl ->
  wf_hostb (i_host inp) = true -> wf_rcb rc = true ->
  forallb (call_okb (has_XH l) (i_host inp) rc) (i_calls inp) = true ->
  spec_its inp = Some gs ->
  forall g : its, In g gs ->
    (forall e : N, elem_count e (fst (its_decompose g)) = elem_count e (snd (its_decompose g))) /\
    total_charge (fst (its_decompose g)) = total_charge (snd (its_decompose g)) /\
    (forall e : N, elem_count e (fst (its_decompose g)) = elem_count e (mol_of_host (i_host inp))) /\
    total_charge (fst (its_decompose g)) = total_charge (mol_of_host (i_host inp)) /\
    (forall a b : N, In a (node_ids (i_host inp)) -> In b (node_ids (i_host inp)) -> bondG g a b = adj (i_host inp) a b).
Proof. exact its_list_default_mode. Qed.
Print Assumptions C03_its_list_default_mode.

(** ... and with the MATCHER'S CONTRACT as hypothesis instead of [match_rcb]: the reactor hands the rule's left graph l to
    SubgraphSearchEngine, whose answers satisfy [match_okb] on the pattern they were asked for (property C06).
    [matcher_hyps_okb] (proof/C03_ReactorSpec.v) = inputs well formed, every bond of rc joins two atoms of rc, l is the
    reactant side of rc as far as matching is concerned ([left_of_rcb]: same number of atoms, every rc atom is an l atom
    with the same element / charge / hydrogen count, every reactant-side bond of rc is a bond of l — evaluated on EVERY
    correspondence case through [rule_link_okb], and true by construction in the implicit-template mode), and the matcher's
    answers satisfy [match_okb] on l (direct route: the kept mapping on the substrate; expanded route: every re-match on
    the well-formed hydrogen-expanded substrate; evaluated per mapping in the ordinary observable and as one boolean on
    every scripted case). *)
Theorem C03_its_list_instances_matcher : forall (inp : rin) (rc : its) (l r : molg) (gs : list its),
  i_rule inp = Some (rc, l, r) ->
  wf_hostb (i_host inp) = true -> wf_rcb rc = true -> edges_closedb rc = true -> left_of_rcb rc l = true ->
  forallb (call_okm (i_host inp) l) (i_calls inp) = true ->
  spec_its inp = Some gs ->
  forall g : its, In g gs -> instance_of (i_host inp) rc g.
Proof.
  intros inp rc l r gs Er H1 H2 H3 H4 H5. apply (its_list_sound_matcher inp rc l r gs Er).
  rewrite Er. unfold matcher_hyps_okb. rewrite H1, H2, H3, H4, H5. reflexivity.
Qed.
Print Assumptions C03_its_list_instances_matcher.

Theorem C03_match_link_left : forall (host : hostg) (rc : its) (l : molg) (m : mapping),
  edges_closedb rc = true -> left_of_rcb rc l = true -> match_okb host l m = true -> match_rcb host rc m = true.
Proof. exact match_okb_left. Qed.
Print Assumptions C03_match_link_left.

Theorem C03_left_of_rcb_implicit : forall tpl : its, NoDup (node_ids tpl) -> left_of_rcb tpl (fst (its_decompose tpl)) = true.
Proof. exact left_of_rcb_dec. Qed.
Print Assumptions C03_left_of_rcb_implicit.

(** in the DEFAULT mode the hypotheses about the rule follow from the TEMPLATE (templates whose atoms have the same
    element on both sides): the prepared rule is well formed, its bonds join its atoms, and its left graph is the reactant
    side of its rule graph as far as matching goes *)
Theorem C03_default_rule_hyps : forall (tpl rc : its) (l r : molg),
  (forall (k : N) (a : inode), In (k, a) (gnodes tpl) -> a_el (iH a) = a_el (iG a)) ->
  wf_rcb tpl = true -> edges_closedb tpl = true -> synrule tpl true = Some (rc, l, r) ->
  wf_rcb rc = true /\ edges_closedb rc = true /\ left_of_rcb rc l = true.
Proof. exact default_rule_hyps. Qed.
Print Assumptions C03_default_rule_hyps.

(** the property END TO END in the default mode, hypotheses on the TEMPLATE (well formed, same element on both sides of
    every atom, [tpl_condition]), the SUBSTRATE (well formed) and the MATCHER'S CONTRACT ([call_okm]: its answers satisfy
    match_okb on the left graph it was given) only: every graph its_list returns (= every Vits value of any script of
    reads, C03_reads_stable) is an instance of the prepared rule in the sense of [instance_of] (written out in
    C03_its_list_instances: substrate side, changed bonds, in-group hydrogen wiring) and conserves every element count
    including hydrogen and the total charge *)
Theorem C03_its_list_default_end_to_end : forall (inp : rin) (tpl rc : its) (l r : molg) (gs : list its),
  i_rule inp = synrule tpl true -> synrule tpl true = Some (rc, l, r) ->
  (forall (k : N) (a : inode), In (k, a) (gnodes tpl) -> a_el (iH a) = a_el (iG a)) ->
  wf_rcb tpl = true -> edges_closedb tpl = true -> tpl_condition tpl ->
  wf_hostb (i_host inp) = true -> forallb (call_okm (i_host inp) l) (i_calls inp) = true ->
  spec_its inp = Some gs ->
  forall g : its, In g gs ->
    instance_of (i_host inp) rc g /\
    (forall e : N, elem_count e (fst (its_decompose g)) = elem_count e (snd (its_decompose g))) /\
    total_charge (fst (its_decompose g)) = total_charge (snd (its_decompose g)).
Proof. exact its_list_default_end_to_end. Qed.
Print Assumptions C03_its_list_default_end_to_end.

(** the property END TO END in the implicit-template mode, forwards and backwards ([invert]), hypotheses on the TEMPLATE
    (well formed, bonds join its atoms), the SUBSTRATE and the MATCHER'S CONTRACT only: the rule is the template (the
    inverted template backwards, C03_backward), its left graph the template's reactant (product) side; every graph of
    its_list is an instance of it, and balanced if the template is *)
Theorem C03_its_list_implicit_end_to_end : forall (invert : bool) (inp : rin) (tpl : its) (gs : list its),
  i_rule inp = synrule (if invert then invert_template tpl else tpl) false ->
  wf_rcb tpl = true -> edges_closedb tpl = true ->
  wf_hostb (i_host inp) = true ->
  forallb (call_okm (i_host inp) (fst (its_decompose (if invert then invert_template tpl else tpl)))) (i_calls inp) = true ->
  spec_its inp = Some gs ->
  forall g : its, In g gs ->
    instance_of (i_host inp) (if invert then invert_template tpl else tpl) g /\
    (balancedb tpl = true ->
       (forall e : N, elem_count e (fst (its_decompose g)) = elem_count e (snd (its_decompose g))) /\
       total_charge (fst (its_decompose g)) = total_charge (snd (its_decompose g))).
Proof. exact its_list_implicit_end_to_end. Qed.
Print Assumptions C03_its_list_implicit_end_to_end.

(** the default mode BACKWARDS: the reactor prepares [invert_template tpl].  The template condition is symmetric in the two
    sides, so it transfers to the inverted template (as do "same element", well-formedness and closed bonds) ... *)
Theorem C03_tpl_condition_invert : forall tpl : its,
  (forall (k : N) (a : inode), In (k, a) (gnodes tpl) -> a_el (iH a) = a_el (iG a)) -> simple_edgesb (gedges tpl) = true ->
  tpl_condition tpl -> tpl_condition (invert_template tpl).
Proof. exact tpl_condition_invert. Qed.
Print Assumptions C03_tpl_condition_invert.

(** ... and the property holds END TO END backwards under hypotheses on the template AS WRITTEN, the substrate and the
    matcher's contract (the backward half of the property's quantifier in the default mode) *)
Theorem C03_its_list_default_end_to_end_backward : forall (inp : rin) (tpl rc : its) (l r : molg) (gs : list its),
  i_rule inp = synrule (invert_template tpl) true -> synrule (invert_template tpl) true = Some (rc, l, r) ->
  (forall (k : N) (a : inode), In (k, a) (gnodes tpl) -> a_el (iH a) = a_el (iG a)) ->
  wf_rcb tpl = true -> edges_closedb tpl = true -> tpl_condition tpl ->
  wf_hostb (i_host inp) = true -> forallb (call_okm (i_host inp) l) (i_calls inp) = true ->
  spec_its inp = Some gs ->
  forall g : its, In g gs ->
    instance_of (i_host inp) rc g /\
    (forall e : N, elem_count e (fst (its_decompose g)) = elem_count e (snd (its_decompose g))) /\
    total_charge (fst (its_decompose g)) = total_charge (snd (its_decompose g)).
Proof. exact its_list_default_end_to_end_backward. Qed.
Print Assumptions C03_its_list_default_end_to_end_backward.

(** a SynRule OBJECT (prepared by the caller in the default mode from a template) applied backwards: the reactor inverts the
    PREPARED rule graph rc0 and uses it without preparing it again (C03_wrap_rule); every graph of its_list
    is an instance of the inverted prepared rule, balanced if the template satisfies [tpl_condition] — hypotheses on the
    template, the substrate and the matcher's contract.  (Forwards a SynRule object is used as it is: C03_its_list_default_
    end_to_end / _implicit_end_to_end apply verbatim.) *)
Theorem C03_its_list_synrule_object_backward : forall (implicit_temp : bool) (inp : rin) (tpl rc0 : its) (l0 r0 : molg) (gs : list its),
  synrule tpl true = Some (rc0, l0, r0) ->
  i_rule inp = wrap_template_rule true implicit_temp (rc0, l0, r0) ->
  (forall (k : N) (a : inode), In (k, a) (gnodes tpl) -> a_el (iH a) = a_el (iG a)) ->
  wf_rcb tpl = true -> edges_closedb tpl = true ->
  wf_hostb (i_host inp) = true ->
  forallb (call_okm (i_host inp) (fst (its_decompose (invert_template rc0)))) (i_calls inp) = true ->
  spec_its inp = Some gs ->
  forall g : its, In g gs ->
    instance_of (i_host inp) (invert_template rc0) g /\
    (tpl_condition tpl ->
       (forall e : N, elem_count e (fst (its_decompose g)) = elem_count e (snd (its_decompose g))) /\
       total_charge (fst (its_decompose g)) = total_charge (snd (its_decompose g))).
Proof. exact its_list_synrule_object_backward. Qed.
Print Assumptions C03_its_list_synrule_object_backward.

(** the template-side hypotheses as ONE boolean of the template as written ([default_tpl_okb], proof/C03_ReactorSpec.v:
    well formed, closed bonds, same element on both sides, and the template condition in decidable form) — evaluated on every
    correspondence case by the model and, independently, by the harness (evidence: to how many templates the end-to-end
    theorems apply) *)
Theorem C03_default_tpl_okb_sound : forall tpl : its, default_tpl_okb tpl = true ->
  (forall (k : N) (a : inode), In (k, a) (gnodes tpl) -> a_el (iH a) = a_el (iG a)) /\
  wf_rcb tpl = true /\ edges_closedb tpl = true /\ tpl_condition tpl.
Proof. exact default_tpl_okb_sound. Qed.
Print Assumptions C03_default_tpl_okb_sound.

(** the property END TO END in the default mode, forwards and backwards, every hypothesis a boolean that the correspondence
    evaluates: the template ([default_tpl_okb], on the template as written), the substrate ([wf_hostb]), the matcher's
    contract ([call_okm]) *)
Theorem C03_its_list_default_bool : forall (invert : bool) (inp : rin) (tpl rc : its) (l r : molg) (gs : list its),
  default_tpl_okb tpl = true ->
  i_rule inp = synrule (if invert then invert_template tpl else tpl) true ->
  synrule (if invert then invert_template tpl else tpl) true = Some (rc, l, r) ->
  wf_hostb (i_host inp) = true -> forallb (call_okm (i_host inp) l) (i_calls inp) = true ->
  spec_its inp = Some gs ->
  forall g : its, In g gs ->
    instance_of (i_host inp) rc g /\
    (forall e : N, elem_count e (fst (its_decompose g)) = elem_count e (snd (its_decompose g))) /\
    total_charge (fst (its_decompose g)) = total_charge (snd (its_decompose g)).
Proof. exact its_list_default_bool. Qed.
Print Assumptions C03_its_list_default_bool.

(** ** _explicit_h NEVER RAISES on graphs glued from rules prepared from (condition-satisfying) templates.
    T-level: a hydrogen LEDGER ([ledger], [ledger_dl], proof/C03_ReactorSpec.v) — one entry per migrating hydrogen: the
    atoms it leaves, the atoms it joins.  If the ledger accounts for every atom's hydrogen change, the atoms of one entry
    carry a common pair id, and every entry leaves as many atoms as it joins, then every hydrogen-transfer group is EXACT
    (as many hydrogens to give as to take), so the pairing succeeds for every visiting order (and by
    C03_explicitH_ord_usage every recipient takes exactly its deficit) *)
Theorem C03_ledger_sound : forall (T : its) (lg : ledger),
  (forall n : N, dl_of T n = ledger_dl lg n) ->
  (forall h : list N * list N, In h lg ->
     exists p : N, forall x : N, In x (fst h ++ snd h) -> exists A : inode, In (x, A) (gnodes T) /\ In p (hp_of A)) ->
  (forall h : list N * list N, In h lg -> length (fst h) = length (snd h)) ->
  pairs_exactb T = true /\ pairs_okb T = true /\
  forall ord : list N -> list N, (forall (l : list N) (x : N), In x (ord l) <-> In x l) -> (forall l : list N, NoDup l -> NoDup (ord l)) ->
    explicit_h_ord ord T <> None.
Proof. exact ledger_sound. Qed.
Print Assumptions C03_ledger_sound.

(** the default mode: the ledger of the template's removed hydrogens (each with the images of the kept non-hydrogen atoms it
    is bonded to on the left / on the right) satisfies the three conditions — hydrogen counts of the prepared rule
    (C03_synrule_default_pointwise), pair ids (C03_default_pair_ids_complete), gluing (labels of matched / unmatched atoms),
    [tpl_condition] — so every graph glued from such a rule along a valid match has only exact groups *)
Theorem C03_default_glued_exact : forall (tpl rc : its) (l r : molg) (host : hostg) (m : mapping) (T : its),
  nodupb (node_ids tpl) = true -> (forall (k : N) (a : inode), In (k, a) (gnodes tpl) -> a_el (iH a) = a_el (iG a)) ->
  simple_edgesb (gedges tpl) = true -> synrule tpl true = Some (rc, l, r) -> tpl_condition tpl ->
  wf_rcb rc = true -> match_rcb host rc m = true -> glue host rc m = Some T ->
  pairs_exactb T = true /\ pairs_okb T = true /\
  forall ord : list N -> list N, (forall (l0 : list N) (x : N), In x (ord l0) <-> In x l0) -> (forall l0 : list N, NoDup l0 -> NoDup (ord l0)) ->
    explicit_h_ord ord T <> None.
Proof. exact default_glued_exact. Qed.
Print Assumptions C03_default_glued_exact.

(** ... hence the reactor's its_list never raises in the default mode ([nocrash], the hypothesis of C03_reads_stable and
    C03_reads_return_instances) *)
Theorem C03_default_nocrash : forall (inp : rin) (tpl rc : its) (l r : molg),
  i_rule inp = Some (rc, l, r) -> synrule tpl true = Some (rc, l, r) ->
  nodupb (node_ids tpl) = true -> (forall (k : N) (a : inode), In (k, a) (gnodes tpl) -> a_el (iH a) = a_el (iG a)) ->
  simple_edgesb (gedges tpl) = true -> tpl_condition tpl ->
  wf_hostb (i_host inp) = true -> wf_rcb rc = true ->
  forallb (call_okb (has_XH l) (i_host inp) rc) (i_calls inp) = true ->
  nocrash inp.
Proof. exact default_nocrash. Qed.
Print Assumptions C03_default_nocrash.

(** THE DEFAULT MODE, TOTAL — forwards and backwards, every hypothesis an evaluated boolean (the template as written:
    [default_tpl_okb]; the substrate: [wf_hostb]; the matcher's contract: [call_okm]): the reactor never raises; any script of
    reads on a fresh reactor returns, read by read, the values the inputs determine; its_list returns a list; and every
    graph in it is an instance of the prepared rule ([instance_of]: substrate side, changed atoms and bonds, in-group
    hydrogen wiring) that conserves every element count including hydrogen and the total charge *)
Theorem C03_default_reactor_total : forall (invert : bool) (inp : rin) (tpl rc : its) (l r : molg),
  default_tpl_okb tpl = true ->
  i_rule inp = synrule (if invert then invert_template tpl else tpl) true ->
  synrule (if invert then invert_template tpl else tpl) true = Some (rc, l, r) ->
  wf_hostb (i_host inp) = true -> forallb (call_okm (i_host inp) l) (i_calls inp) = true ->
  nocrash inp /\
  (forall ops : list rop, run_ops inp rs0 ops = map (spec_val inp) ops) /\
  (exists gs : list its, spec_its inp = Some gs) /\
  (forall (gs : list its) (g : its), spec_its inp = Some gs -> In g gs ->
     instance_of (i_host inp) rc g /\
     (forall e : N, elem_count e (fst (its_decompose g)) = elem_count e (snd (its_decompose g))) /\
     total_charge (fst (its_decompose g)) = total_charge (snd (its_decompose g))).
Proof. exact default_reactor_total. Qed.
Print Assumptions C03_default_reactor_total.

(** no pair ids, no migration: on a graph none of whose atoms carries a pair id _explicit_h changes nothing, whatever the
    order (rules without h_pairs — inverted templates, inverted prepared rules — move hydrogens as counts) *)
Theorem C03_explicitH_no_pairs : forall (ord : list N -> list N) (T : its),
  (forall (k : N) (a : inode), In (k, a) (gnodes T) -> hp_of a = []) -> explicit_h_ord ord T = Some (T, []).
Proof. exact explicit_h_no_pairs. Qed.
Print Assumptions C03_explicitH_no_pairs.

(** a SynRule object applied backwards, TOTAL: nothing raises, every script of reads returns the specified values, and
    its_list is the list of glued graphs (the explicit-hydrogen stage is the identity); with
    C03_its_list_synrule_object_backward every one of them is an instance of the inverted prepared rule *)
Theorem C03_synrule_object_backward_total : forall (implicit_temp : bool) (inp : rin) (tpl rc0 : its) (l0 r0 : molg),
  synrule tpl true = Some (rc0, l0, r0) ->
  i_rule inp = wrap_template_rule true implicit_temp (rc0, l0, r0) ->
  (forall (k : N) (a : inode), In (k, a) (gnodes tpl) -> a_el (iH a) = a_el (iG a)) ->
  wf_rcb tpl = true -> edges_closedb tpl = true ->
  wf_hostb (i_host inp) = true ->
  forallb (call_okm (i_host inp) (fst (its_decompose (invert_template rc0)))) (i_calls inp) = true ->
  nocrash inp /\ (forall ops : list rop, run_ops inp rs0 ops = map (spec_val inp) ops) /\
  spec_its inp = Some (map fst (spec_glued inp)).
Proof. exact synrule_object_backward_total. Qed.
Print Assumptions C03_synrule_object_backward_total.

(** THE IMPLICIT-TEMPLATE MODE, TOTAL — forwards and backwards (the explicit-hydrogen stage is off, so nothing can raise):
    hypotheses on the template (well formed, closed bonds), the substrate and the matcher's contract; every script of reads
    returns the specified values, its_list returns a list, every graph in it is an instance of the (inverted) template and is
    balanced if the template is *)
Theorem C03_implicit_reactor_total : forall (invert : bool) (inp : rin) (tpl : its),
  i_explicit inp = false ->
  i_rule inp = synrule (if invert then invert_template tpl else tpl) false ->
  wf_rcb tpl = true -> edges_closedb tpl = true ->
  wf_hostb (i_host inp) = true ->
  forallb (call_okm (i_host inp) (fst (its_decompose (if invert then invert_template tpl else tpl)))) (i_calls inp) = true ->
  nocrash inp /\
  (forall ops : list rop, run_ops inp rs0 ops = map (spec_val inp) ops) /\
  (exists gs : list its, spec_its inp = Some gs) /\
  (forall (gs : list its) (g : its), spec_its inp = Some gs -> In g gs ->
     instance_of (i_host inp) (if invert then invert_template tpl else tpl) g /\
     (balancedb tpl = true ->
        (forall e : N, elem_count e (fst (its_decompose g)) = elem_count e (snd (its_decompose g))) /\
        total_charge (fst (its_decompose g)) = total_charge (snd (its_decompose g)))).
Proof. exact implicit_reactor_total. Qed.
Print Assumptions C03_implicit_reactor_total.

