(** C18 — network canonical form is a complete invariant; automorphism data are exact.
    Statements only; every proof cites a lemma of proof/C18_*.v (C18_species_view_ignores_stoich holds by reflexivity).
    Vocabulary.  proof/C18_Spec.v: [wf], [relabel], [geq], [iso], [inj_on], [is_aut], [min_leaves]; proof/C18_Label.v: [kinds_ok],
    [arcs_ok] ([attr_ok]); proof/C18_View.v: [coeffs_ok], [net_closed] (written out in the statements here); proof/C18_NetBip.v:
    [net_ok], [net_variant] ([rxn_variant]); proof/C18_Net.v: [rename_net]; proof/C18_Orbits.v: [conn], [part];
    lib/C18_IRValid.v: [vpart]; proof/C18_WL.v: [is_autA]; proof/C18_AttrEquiv.v: [is_autG], [relab_tab];
    proof/C18_IntIdsRen.v: [net_struct]; proof/C18_LabelA.v: [canon_nodesG], [canon_arcsG], [arcsS_ok].  [wf g] = node ids distinct, one arc per ordered pair, arcs join nodes (what a
    networkx DiGraph guarantees; [wfb] is evaluated on every correspondence case); [relabel f g] = g with every node id
    replaced by [f] (kinds, role, stoich untouched); [geq] = same graph up to the insertion order of nodes / arcs;
    [iso g h] = some map injective on the nodes of g relabels g into h up to [geq]. *)
From Coq Require Import List NArith ZArith Bool Arith Permutation.
From SK Require Import lib.IRSortKeys lib.IRCore lib.IRSearch model.C18_Model model.C18_AttrModel model.C18_WLModel model.C18_BackendModel model.C18_DepthModel model.C18_IntIdsModel model.C18_UFModel model.C18_AutAttrModel model.C18_SpAttrModel model.C18_RunModel model.C18_SigLogModel proof.C18_Attr proof.C18_Order proof.C18_Spec
  proof.C18_Graph proof.C18_Canon proof.C18_Equiv proof.C18_Label proof.C18_Aut proof.C18_Invariant proof.C18_Wf proof.C18_Count proof.C18_View proof.C18_Vf2 proof.C18_Vf2Count proof.C18_Refine proof.C18_NetBip proof.C18_Net proof.C18_NetSp proof.C18_Orbits proof.C18_OrbSound proof.C18_OrbComplete proof.C18_OrbCanon proof.C18_Maps proof.C18_WL proof.C18_Backend proof.C18_Depth proof.C18_IntIds proof.C18_UF proof.C18_AutAttr proof.C18_SpAttr proof.C18_AttrEquiv proof.C18_BackendFlags proof.C18_IntIdsRen proof.C18_WLBound proof.C18_Cross proof.C18_Examples.
From SK Require Import lib.C18_IRValid.
From SK Require lib.IRInst.
Import ListNotations.

(** The search of the model (accumulator recursion of CRNCanonicalizer._search: refine, score a discrete partition,
    otherwise individualise every node of the first non-singleton cell) visits exactly the leaves of the generic
    unpruned individualisation-refinement enumeration of lib/IRCore.v, in order: best label / permutation and the
    list of minimal leaves are a left fold of [visit] over that enumeration. *)
Theorem C18_search_is_fold : forall g : vgraph,
  canon_search g =
  fold_left (visit lexlebN (label g))
            (leaves IRInst.lexleb (sig g) (S (length (vnodes g))) (S (length (vnodes g))) (init_part g) [])
            (None, []).
Proof. exact canon_search_fold. Qed.
Print Assumptions C18_search_is_fold.

(** Fuel sufficiency: on a well-formed view the search always reaches a leaf (the code's RuntimeError "canonical
    form not found" cannot happen without max_depth / timeout). *)
Theorem C18_canon_found : forall g : vgraph, wf g -> fst (canon_search g) <> None.
Proof. exact canon_found. Qed.
Print Assumptions C18_canon_found.

(** Clause 1: the canonical graph is the view relabelled by the canonical numbering [cid perm]
    (mapping = {v: i+1 for i, v in enumerate(perm)}), which is injective on the nodes of the view and maps them onto
    k+1 .. k+n (k = length of the duplicated prefix); kinds and arcs with role / stoich are carried over unchanged. *)
Theorem C18_canon_iso : forall (g : vgraph) (lab perm : list N),
  wf g -> fst (canon_search g) = Some (lab, perm) ->
  canon_graph g perm = relabel (cid perm) g /\
  inj_on (cid perm) (node_ids g) /\
  (exists k, Permutation (node_ids (canon_graph g perm)) (map N.of_nat (seq (S k) (length (vnodes g))))) /\
  wf (canon_graph g perm) /\
  (forall v, In v (node_ids g) -> kind_of (canon_graph g perm) (cid perm v) = kind_of g v) /\
  (forall u v, In u (node_ids g) -> In v (node_ids g) ->
     find_arc (canon_graph g perm) (cid perm u) (cid perm v) = find_arc g u v).
Proof. exact canon_iso. Qed.
Print Assumptions C18_canon_iso.

(** Clause 3 (completeness): views that receive identical canonical graphs (as graphs: up to insertion order) are
    isomorphic; contrapositive: non-isomorphic views receive different canonical graphs. *)
Theorem C18_canon_complete : forall (g1 g2 : vgraph) (l1 p1 l2 p2 : list N),
  wf g1 -> wf g2 ->
  fst (canon_search g1) = Some (l1, p1) -> fst (canon_search g2) = Some (l2, p2) ->
  geq (canon_graph g1 p1) (canon_graph g2 p2) -> iso g1 g2.
Proof. exact canon_complete. Qed.
Print Assumptions C18_canon_complete.

(** The model's signature [sig] (kind, in/out degree, neighbour counts per cell, sorted out-edge attributes) satisfies
    the hypothesis [sig_rel] of lib/IRCore.v for a view that is renamed by an injective map and presented with another
    insertion order of nodes / arcs. *)
Theorem C18_sig_rel : forall (f : N -> N), (forall x y, f x = f y -> x = y) ->
  forall (g g' : vgraph) (P P' : partition) (v : N),
  wf g -> geq g' (relabel f g) -> partR f P P' -> sig g' P' (f v) = sig g P v.
Proof. exact sig_rel. Qed.
Print Assumptions C18_sig_rel.

(** The leaf enumeration of the renamed / re-ordered view is the renamed leaf enumeration, up to the visiting order. *)
Theorem C18_leaves_equivariant : forall (f : N -> N), (forall x y, f x = f y -> x = y) ->
  forall g g' : vgraph, wf g -> geq g' (relabel f g) ->
  Permutation (map (map f) (leaves IRInst.lexleb (sig g) (S (length (vnodes g))) (S (length (vnodes g))) (init_part g) []))
              (leaves IRInst.lexleb (sig g') (S (length (vnodes g'))) (S (length (vnodes g'))) (init_part g') []).
Proof. exact leaves_of_rel. Qed.
Print Assumptions C18_leaves_equivariant.

(** Clause 2 (invariance): a view [g'] that is [g] with its nodes renamed by a map that is injective on the nodes of
    [g] (species renamed, reaction ids regenerated) and its node / arc lists in any other order (reactions re-ordered)
    receives the same minimal label and the identical canonical graph.  [kinds_ok] / [arcs_ok]: kinds are 'reaction' /
    'species', role is None / 'product' / 'reactant', stoich is None or a non-negative integer (the domain on which
    the label string can be read back; C18_view_wf shows every view is in it). *)
Theorem C18_canon_invariant : forall (f : N -> N) (g g' : vgraph) (lab p lab' p' : list N),
  inj_on f (node_ids g) -> wf g -> kinds_ok g -> arcs_ok g -> geq g' (relabel f g) ->
  fst (canon_search g) = Some (lab, p) -> fst (canon_search g') = Some (lab', p') ->
  lab' = lab /\ geq (canon_graph g' p') (canon_graph g p).
Proof. exact canon_invariant_on. Qed.
Print Assumptions C18_canon_invariant.

(** The premises are decidable; the boolean versions are part of the observable of every correspondence case
    (run_net evaluates [wfb g && kinds_okb g && arcs_okb g] on the view, the harness checks the same facts on the
    networkx graph of the implementation). *)
Theorem C18_premises_sound : forall g : vgraph,
  (wfb g = true -> wf g) /\ (kinds_okb g = true -> kinds_ok g) /\ (arcs_okb g = true -> arcs_ok g).
Proof. exact (fun g => conj (wfb_wf g) (conj (kinds_okb_ok g) (arcs_okb_ok g))). Qed.
Print Assumptions C18_premises_sound.

(** Known finding C18:view-id-collision (code kept as it is): the views put species labels and reaction ids into one
    node namespace, so "renaming species" is NOT always a renaming of the view: an injective renaming of the species
    whose image meets a reaction id merges two nodes; the renamed network has a view with fewer nodes, hence a
    non-isomorphic canonical graph.  Clause 2 above is therefore stated for renamings of the VIEW's nodes. *)
Theorem C18_species_renaming_refuted : exists (n : net) (f : N -> N),
  inj_on f (nspecies n) /\
  length (vnodes (view true true (rename_species f n))) <> length (vnodes (view true true n)).
Proof. exact species_renaming_refuted. Qed.
Print Assumptions C18_species_renaming_refuted.

(** Clause 4, count: the list of minimal leaves (whose length the code reports as automorphism_count) is a
    duplicate-free enumeration of the structure-preserving self-maps of the view: q is a minimal leaf iff q is the image
    of the best permutation under a self-map preserving kinds and arcs with role / stoich ([is_aut]), and two self-maps
    with the same image agree on every node. *)
Theorem C18_aut_count : forall (g : vgraph) (lab p : list N),
  wf g -> kinds_ok g -> arcs_ok g -> fst (canon_search g) = Some (lab, p) ->
  NoDup (min_leaves g) /\
  (forall q, In q (min_leaves g) <-> exists s, is_aut g s /\ q = map s p) /\
  (forall s s', is_aut g s -> is_aut g s' -> map s p = map s' p -> forall v, In v (node_ids g) -> s v = s' v).
Proof. exact aut_count. Qed.
Print Assumptions C18_aut_count.

(** Exchangeable nodes, read off the minimal leaves: u can be mapped to v by a structure-preserving self-map iff some
    minimal leaf carries v at a position where the best permutation carries u. *)
Theorem C18_orbit_relation : forall (g : vgraph) (lab p : list N) (u v : N),
  wf g -> kinds_ok g -> arcs_ok g -> fst (canon_search g) = Some (lab, p) -> In u (node_ids g) ->
  ((exists s, is_aut g s /\ s u = v) <->
   (exists q i, In q (min_leaves g) /\ i < length p /\ nth i p 0%N = u /\ nth i q 0%N = v)).
Proof. exact orbit_pairs. Qed.
Print Assumptions C18_orbit_relation.

(** Every network gives views inside the domain of the theorems: both views of a network whose coefficients are
    positive and whose reactions only mention listed species (what CRNHyperGraph guarantees) are well-formed graphs with
    kinds / roles / stoichiometries in range.  (A species label equal to a reaction id does not break this: the two
    nodes are merged, which is the known finding above.) *)
Theorem C18_view_wf : forall (bip st : bool) (n : net),
  (forall r, In r (nrxns n) -> forall sc, In sc (lhs r ++ rhs r) -> (0 < snd sc)%Z) ->
  (forall r, In r (nrxns n) -> forall sc, In sc (lhs r ++ rhs r) -> In (fst sc) (nspecies n)) ->
  wf (view bip st n) /\ kinds_ok (view bip st n) /\ arcs_ok (view bip st n).
Proof. exact view_GI. Qed.
Print Assumptions C18_view_wf.

(** Clause 4 for CRNAutomorphism (VF2).  VF2 itself (networkx DiGraphMatcher.isomorphisms_iter with node_match on kind and
    edge_match on role / stoich) is outside the model; the explicit premise is that it returns as many mappings as the
    model's reference enumerator [auts] (compared on every correspondence case).  Then: [auts g] is a duplicate-free list of
    assignments (along the assignment order [aut_order g], a permutation of the nodes), each assignment is a
    structure-preserving self-map and every such self-map occurs; and the count equals the canonicaliser's count. *)
Theorem C18_vf2_count : forall (g : vgraph) (lab p : list N) (vf2_count : nat),
  wf g -> kinds_ok g -> arcs_ok g -> fst (canon_search g) = Some (lab, p) ->
  vf2_count = length (auts g) ->
  NoDup (auts g) /\
  (forall s, is_aut g s -> In (rev (combine (aut_order g) (map s (aut_order g)))) (auts g)) /\
  (forall m, In m (auts g) -> exists s, is_aut g s /\ m = rev (combine (aut_order g) (map s (aut_order g)))) /\
  vf2_count = length (min_leaves g).
Proof. exact vf2_count. Qed.
Print Assumptions C18_vf2_count.

(** Refinement fuel sufficiency: on an ordered partition of the nodes ([vpart]: the cells are non-empty and their
    concatenation is a permutation of the node list) the model's refinement returns a partition that one further round of
    splitting leaves unchanged -- the exit condition of the [while changed] loop of CRNCanonicalizer._refine. *)
Theorem C18_refine_stable : forall (g : vgraph) (P : partition),
  vpart (node_ids g) P ->
  refine_step IRInst.lexleb (sig g) (refine IRInst.lexleb (sig g) (S (length (vnodes g))) P)
  = refine IRInst.lexleb (sig g) (S (length (vnodes g))) P.
Proof. exact model_refine_stable. Qed.
Print Assumptions C18_refine_stable.

(** Clauses 2 and 3 together: the canonical graph is a complete invariant of the view up to isomorphism. *)
Theorem C18_canon_complete_invariant : forall (g1 g2 : vgraph) (l1 p1 l2 p2 : list N),
  wf g1 -> kinds_ok g1 -> arcs_ok g1 -> wf g2 ->
  fst (canon_search g1) = Some (l1, p1) -> fst (canon_search g2) = Some (l2, p2) ->
  (iso g1 g2 <-> geq (canon_graph g1 p1) (canon_graph g2 p2)).
Proof. exact canon_complete_invariant. Qed.
Print Assumptions C18_canon_complete_invariant.

(** Clause 2 stated on NETWORKS, bipartite view (with / without stoichiometry).  [net_ok st n]: species labels and reaction
    ids are pairwise distinct (no view-id collision), reactions mention listed species only, no ordered (species, reaction)
    incidence occurs twice.  [net_variant f n n']: the species list of n' is a permutation of the renamed species list of n
    and the reaction list of n' is a permutation of the reactions of n with id f(id), sides renamed by f and listed in any
    order -- i.e. species renamed, reactions re-ordered, reaction ids regenerated.  Under these premises the bipartite
    view has a closed form (view_bip_closed) and n' receives the same minimal label and the identical canonical graph. *)
Theorem C18_net_canon_invariant_bip : forall (st : bool) (f : N -> N) (n n' : net) (lab p lab' p' : list N),
  net_ok st n -> net_ok st n' ->
  (forall r, In r (nrxns n) -> forall sc, In sc (lhs r ++ rhs r) -> (0 < snd sc)%Z) ->
  net_variant f n n' ->
  inj_on f (nspecies n ++ map rid (nrxns n)) ->
  fst (canon_search (view true st n)) = Some (lab, p) -> fst (canon_search (view true st n')) = Some (lab', p') ->
  lab' = lab /\ geq (canon_graph (view true st n') p') (canon_graph (view true st n) p).
Proof. exact net_canon_invariant_bip. Qed.
Print Assumptions C18_net_canon_invariant_bip.

(** Clause 2 stated on NETWORKS, species view: for a network with distinct species labels whose reactions mention listed
    species only, a variant (species renamed injectively, reactions re-ordered, ids regenerated) receives the same minimal
    label and the identical canonical graph. *)
Theorem C18_net_canon_invariant_sp : forall (f : N -> N) (n n' : net) (lab p lab' p' : list N),
  NoDup (nspecies n) -> NoDup (nspecies n') ->
  (forall r, In r (nrxns n) -> forall sc, In sc (lhs r ++ rhs r) -> In (fst sc) (nspecies n)) ->
  net_variant f n n' -> inj_on f (nspecies n) ->
  fst (canon_search (view false true n)) = Some (lab, p) -> fst (canon_search (view false true n')) = Some (lab', p') ->
  lab' = lab /\ geq (canon_graph (view false true n') p') (canon_graph (view false true n) p).
Proof. exact net_canon_invariant_sp. Qed.
Print Assumptions C18_net_canon_invariant_sp.

(** Clause 4, orbits, for CRNAutomorphism (VF2 as premise, see C18_vf2_count): the model of its orbit computation
    (union-find over every (node, image) pair of every enumerated self-map) returns a partition of the nodes
    ([part]: the classes are pairwise disjoint and cover the nodes) in which two nodes share a class ([conn]) exactly when
    some structure-preserving self-map sends one to the other. *)
Theorem C18_vf2_orbits : forall g : vgraph, wf g ->
  part (node_ids g) (uf_orbits (node_ids g) (auts g)) /\
  (forall u v, In u (node_ids g) ->
     (conn (uf_orbits (node_ids g) (auts g)) u v <-> exists s, is_aut g s /\ s u = v)).
Proof. exact vf2_orbits. Qed.
Print Assumptions C18_vf2_orbits.

(** Clause 4, orbits of the canonicaliser, in full: two nodes lie in a common set of the reported orbits
    (orbits_from_perms = the slot-based union-find of _orbits_from_perms with its orbit_map, emptied slots and the
    duplicated prefix positions, applied to the minimal leaves) exactly when some structure-preserving self-map sends one
    to the other.  Sound half: a slot only ever joins its home element's class with the class of an image of that element;
    complete half: a slot that survives contains the image of its home element under EVERY leaf, and the leaves are the
    images of the best permutation under all self-maps (C18_aut_count).  (The reported list can contain the same set
    twice -- a prefix slot and its tail twin may both survive; as a set of classes it is the orbit partition.) *)
Theorem C18_orbits : forall (g : vgraph) (lab p : list N),
  wf g -> kinds_ok g -> arcs_ok g -> fst (canon_search g) = Some (lab, p) ->
  forall u v, In u (node_ids g) ->
    ((exists c, In c (orbits_from_perms (min_leaves g)) /\ In u c /\ In v c) <-> (exists s, is_aut g s /\ s u = v)).
Proof. exact canon_orbits. Qed.
Print Assumptions C18_orbits.

(** every node is reported in some orbit set *)
Theorem C18_orbits_cover : forall (g : vgraph) (lab p : list N),
  wf g -> kinds_ok g -> arcs_ok g -> fst (canon_search g) = Some (lab, p) ->
  forall v, In v (node_ids g) -> exists c, In c (orbits_from_perms (min_leaves g)) /\ In v c.
Proof. exact canon_orbits_cover. Qed.
Print Assumptions C18_orbits_cover.

(** Node naming schemes (integer_ids=True numbers the sorted species 1..N and the reactions N+1..N+M; the harness feeds the
    model the network with exactly these numbers as ids): a network whose species labels and reaction ids are ALL replaced
    through an injective map receives the same minimal label and the identical canonical graph. *)
Theorem C18_net_renamed_ids : forall (st : bool) (f : N -> N) (n : net) (lab p lab' p' : list N),
  net_ok st n -> net_ok st (rename_net f n) ->
  (forall r, In r (nrxns n) -> forall sc, In sc (lhs r ++ rhs r) -> (0 < snd sc)%Z) ->
  inj_on f (nspecies n ++ map rid (nrxns n)) ->
  fst (canon_search (view true st n)) = Some (lab, p) ->
  fst (canon_search (view true st (rename_net f n))) = Some (lab', p') ->
  lab' = lab /\ geq (canon_graph (view true st (rename_net f n)) p') (canon_graph (view true st n) p).
Proof. exact net_renamed_ids_bip. Qed.
Print Assumptions C18_net_renamed_ids.

(** summary()["mappings"] (_maps_from_perms, a dict per minimal leaf; a later position overwrites an earlier one): there is
    one mapping per minimal leaf and every reported mapping is exactly the graph, on the nodes of the view, of a
    structure-preserving self-map. *)
Theorem C18_mappings : forall (g : vgraph) (lab p : list N),
  wf g -> kinds_ok g -> arcs_ok g -> fst (canon_search g) = Some (lab, p) ->
  length (maps_from_perms p (min_leaves g)) = length (min_leaves g) /\
  forall m, In m (maps_from_perms p (min_leaves g)) ->
    exists s, is_aut g s /\ forall a b, In (a, b) m <-> (In a (node_ids g) /\ b = s a).
Proof. exact mappings_spec. Qed.
Print Assumptions C18_mappings.

(** has_nontrivial_automorphism() (= more than one minimal leaf) holds exactly when some structure-preserving self-map
    moves a node. *)
Theorem C18_has_nontrivial : forall (g : vgraph) (lab p : list N),
  wf g -> kinds_ok g -> arcs_ok g -> fst (canon_search g) = Some (lab, p) ->
  (1 < length (min_leaves g) <-> exists s v, is_aut g s /\ In v (node_ids g) /\ s v <> v).
Proof. exact has_nontrivial_spec. Qed.
Print Assumptions C18_has_nontrivial.

(** Non-default attribute selections (model/C18_AttrModel.v, bipartite view: node_attr_keys from kind / bipartite / label /
    absent keys, edge_attr_keys from role / stoich / absent keys, any order and multiplicity; evaluated against the code on
    the `attrs` cases).  With the default selection the generalised canonicaliser is the base model, so every theorem above
    is a theorem about it. *)
Theorem C18_attr_default : forall (g : vgraph) (t : ltab),
  NoDup (node_ids g) -> canon_searchA g t [NKind] [ERole; EStoich] = canon_search g.
Proof. exact canon_searchA_default. Qed.
Print Assumptions C18_attr_default.

(** For EVERY selection (also the empty view with node_attr_keys=(), where the code before /repo ad4c809 crashed), the search
    finds a leaf, the reported label is the label of the reported permutation and the
    canonical graph is the view relabelled by a bijection onto k+1..k+n (clause 1 does not depend on the selection). *)
Theorem C18_attr_canon_iso : forall (g : vgraph) (t : ltab) (nk : list nsel) (ek : list esel),
  wf g ->
  fst (canon_searchA g t nk ek) <> None /\
  forall lab perm, fst (canon_searchA g t nk ek) = Some (lab, perm) ->
    lab = labelA g t nk ek perm /\
    canon_graph g perm = relabel (cid perm) g /\ inj_on (cid perm) (node_ids g) /\
    (exists k, Permutation (node_ids (canon_graph g perm)) (map N.of_nat (seq (S k) (length (vnodes g))))) /\
    wf (canon_graph g perm) /\
    (forall v, In v (node_ids g) -> kind_of (canon_graph g perm) (cid perm v) = kind_of g v) /\
    (forall u v, In u (node_ids g) -> In v (node_ids g) ->
       find_arc (canon_graph g perm) (cid perm u) (cid perm v) = find_arc g u v).
Proof. exact canon_isoA. Qed.
Print Assumptions C18_attr_canon_iso.

(** WLCanonicalizer (model/C18_WLModel.v: colour cells of 1-WL refinement with the options n_iter, include_in_neighbors,
    include_out_neighbors and the attribute selections; compared with the code on every case).  The code documents its orbits as
    approximate; the sound half holds for ALL inputs and options: a self-map of the view that is injective on the nodes, maps
    nodes to nodes and preserves the SELECTED node attributes, adjacency in both directions (loops included) and the SELECTED
    edge attributes ([is_autA]) preserves every WL colour. *)
Theorem C18_wl_respects_selected_auts : forall (g : vgraph) (t : ltab) (nk : list nsel) (ek : list esel) (s : N -> N)
    (inb outb : bool) (n_iter : nat),
  wf g ->
  inj_on s (node_ids g) -> (forall v, In v (node_ids g) -> In (s v) (node_ids g)) ->
  (forall v, In v (node_ids g) -> nkey g t nk (s v) = nkey g t nk v) ->
  (forall u v, In u (node_ids g) -> In v (node_ids g) ->
     option_map (ekey ek) (find_arc g (s u) (s v)) = option_map (ekey ek) (find_arc g u v)) ->
  forall v, In v (node_ids g) ->
    col_get (wl_colors g t nk ek inb outb n_iter) (s v) = col_get (wl_colors g t nk ek inb outb n_iter) v.
Proof. exact (fun g t nk ek s inb outb n Hw H1 H2 H3 H4 => wl_colors_aut g t nk ek s Hw (conj H1 (conj H2 (conj H3 H4))) inb outb n). Qed.
Print Assumptions C18_wl_respects_selected_auts.

(** With the default selection: the WL cells never split a class of nodes exchangeable by a structure-preserving self-map
    (the same [is_aut] that C18_aut_count / C18_orbits are about): a node and its image lie in the same reported cell. *)
Theorem C18_wl_never_splits_orbit : forall (g : vgraph) (s : N -> N) (inb outb : bool) (n_iter : nat),
  wf g -> is_aut g s ->
  forall c, In c (wl_cells g (wl_colors g [] [NKind] [ERole; EStoich] inb outb n_iter)) ->
  forall v, In v (node_ids g) -> (In v c <-> In (s v) c).
Proof. exact wl_never_splits_orbit. Qed.
Print Assumptions C18_wl_never_splits_orbit.

(** The reported WL cells are a partition of the coloured nodes: every node lies in a cell and two cells sharing a node are
    the same cell. *)
Theorem C18_wl_cells_partition : forall (g : vgraph) (c : coloring),
  (forall v, In v (node_ids g) -> In v (map fst c) -> exists cell, In cell (wl_cells g c) /\ In v cell) /\
  (forall c1 c2 v, In c1 (wl_cells g c) -> In c2 (wl_cells g c) -> In v c1 -> In v c2 -> c1 = c2).
Proof. exact (fun g c => conj (wl_cells_cover g c) (wl_cells_disjoint g c)). Qed.
Print Assumptions C18_wl_cells_partition.

(** State that survives between calls: _CRNGraphBackend caches the graph view on the analyzer together with the hypergraph's
    _version (model/C18_BackendModel.v; the served views of kept analyzers are compared with the code in every history case).
    A script on ONE hypergraph object -- mutating method calls ([EMethod n' k]: network value n' afterwards, version bumped 1 + k
    times), analyzers created at any time with any (include_rule, include_stoich) ([SNew]), reads of any analyzer at any time
    ([SRead i]) -- serves at every read exactly the view that an analyzer created afresh at that moment would build:
    [spec_hist] evaluates [view] on the current network value at every read. *)
Theorem C18_backend_serves_current : forall (n0 : net) (v0 : N) (steps : list hstep),
  (forall e, In (SEdit e) steps -> exists n' k, e = EMethod n' k) ->
  run_hist (HG n0 v0, []) steps = spec_hist n0 [] steps.
Proof. exact backend_history_current'. Qed.
Print Assumptions C18_backend_serves_current.

(** The premise is needed (code kept as it is; documented: "rebuilt after the hypergraph was edited through its methods"):
    an edit behind the hypergraph's back ([ESilent]: RXNSide.__setitem__, edge.reactants[s] = c) does not bump the version and a
    kept analyzer goes on serving the old view (witness: 2A >> B analysed, coefficient set to 1, analyzer read again).  Not a
    clause of the property (the canonical graph still belongs to the view it was computed from); the correspondence predicts the
    stale answers exactly. *)
Theorem C18_backend_silent_edit_refuted : exists (n0 : net) (steps : list hstep),
  run_hist (HG n0 0, []) steps <> spec_hist n0 [] steps.
Proof. exact backend_silent_edit_refuted. Qed.
Print Assumptions C18_backend_silent_edit_refuted.

(** Option max_depth of the canonicaliser (model/C18_DepthModel.v follows _search / _canon: the depth is checked before refining,
    a stop aborts the whole search; compared with the code on the `depth` cases for several bounds).
    Without the option the bounded search IS the search all theorems above are about, and it never reports an early stop. *)
Theorem C18_max_depth_none : forall g : vgraph, canon_search_md g None = (canon_search g, false).
Proof. exact canon_md_none. Qed.
Print Assumptions C18_max_depth_none.

(** early_stop = False certifies the answer: whenever the bounded search does not report an early stop, best label, canonical
    permutation and the list of minimal leaves are exactly those of the unbounded search (so every theorem above applies). *)
Theorem C18_max_depth_exact : forall (g : vgraph) (md : option nat),
  snd (canon_search_md g md) = false -> fst (canon_search_md g md) = canon_search g.
Proof. exact canon_md_exact. Qed.
Print Assumptions C18_max_depth_exact.

(** A bound of at least the number of nodes never stops early (every individualisation adds a cell). *)
Theorem C18_max_depth_enough : forall (g : vgraph) (d : nat),
  wf g -> length (vnodes g) <= d -> canon_search_md g (Some d) = (canon_search g, false).
Proof. exact canon_md_enough. Qed.
Print Assumptions C18_max_depth_enough.

(** integer_ids=True, computed inside the model (model/C18_IntIdsModel.v: sorted species 1..N, then the reactions sorted by id
    N+1..N+M): on a network without a view-id collision the numbered network receives the same minimal label and the identical
    canonical graph as the named one. *)
Theorem C18_intids_canon : forall (st : bool) (n : net) (lab p lab' p' : list N),
  net_ok st n ->
  (forall r, In r (nrxns n) -> forall sc, In sc (lhs r ++ rhs r) -> (0 < snd sc)%Z) ->
  fst (canon_search (view true st n)) = Some (lab, p) ->
  fst (canon_search (view true st (intids_net n))) = Some (lab', p') ->
  lab' = lab /\ geq (canon_graph (view true st (intids_net n)) p') (canon_graph (view true st n) p).
Proof. exact net_intids_canon. Qed.
Print Assumptions C18_intids_canon.

(** Clause 4, orbits, for CRNAutomorphism with the union-find of the code itself (model/C18_UFModel.v: parent dict, find with path
    halving, union without ranks, buckets by root in node order; evaluated on every case).  Fuel sufficiency of [find] is part of the
    proof (a parent path inside the nodes is shorter than the node list).  VF2 stays the explicit premise of C18_vf2_count.
    What this needs from VF2 is that it yields the same SET of (node, image) pairs as [auts g]; the orbits reported by the code are
    compared with [orbits_from_mappings (node_ids g) (auts g)] on every case, the count premise of C18_vf2_count alone would not do. *)
Theorem C18_vf2_orbits_uf : forall g : vgraph, wf g ->
  part (node_ids g) (orbits_from_mappings (node_ids g) (auts g)) /\
  (forall u v, In u (node_ids g) ->
     (conn (orbits_from_mappings (node_ids g) (auts g)) u v <-> exists s, is_aut g s /\ s u = v)).
Proof. exact vf2_orbits_uf. Qed.
Print Assumptions C18_vf2_orbits_uf.

(** The computed partition does not depend on the order or multiplicity in which the mappings (and the pairs inside a mapping)
    arrive: this is why the model may run the union-find on its own enumeration instead of VF2's. *)
Theorem C18_uf_order_independent : forall (nodes : list N) (maps maps' : list (list (N * N))), NoDup nodes ->
  (forall m sd, In m maps -> In sd m -> In (fst sd) nodes /\ In (snd sd) nodes) ->
  (forall sd, In sd (concat maps) <-> In sd (concat maps')) ->
  forall u v, conn (orbits_from_mappings nodes maps) u v <-> conn (orbits_from_mappings nodes maps') u v.
Proof. exact orbits_order_independent. Qed.
Print Assumptions C18_uf_order_independent.

(** summary(max_count=k) of the VF2 tool on a view with a >= 1 self-maps (compared with the code on the `vf2opts` cases):
    stopped_early = False means every mapping was counted and united; a truncated run counted exactly max(k, 1) of them. *)
Theorem C18_vf2_bookkeeping : forall (a : nat) (k : Z), 1 <= a ->
  let '(count, stopped, samples, used) := vf2_bookkeeping a k in
  used = count /\ count <= a /\ samples <= count /\ (stopped = false -> count = a) /\
  (stopped = true -> count = Z.to_nat (Z.max k 1)).
Proof. exact bookkeeping_spec. Qed.
Print Assumptions C18_vf2_bookkeeping.

(** CRNAutomorphism with a non-default node_attr_keys (model/C18_AutAttrModel.v; compared with the code on the `attrs` cases; VF2
    itself stays the monitored premise).  [is_autA g t nk [ERole; EStoich] s]: s is injective on the nodes, maps nodes to nodes,
    preserves the SELECTED node attributes and every arc with its role and stoichiometry.  The model's enumerator lists each such
    self-map exactly once (so its length is their number), and the code's union-find run on these mappings reports exactly their
    exchangeability classes. *)
Theorem C18_vf2_attr_count : forall (g : vgraph) (t : ltab) (nk : list nsel), wf g ->
  NoDup (autsA g t nk) /\
  (forall s, is_autA g t nk [ERole; EStoich] s ->
     In (rev (combine (aut_order (recode g t nk)) (map s (aut_order (recode g t nk))))) (autsA g t nk)) /\
  (forall m, In m (autsA g t nk) -> exists s, is_autA g t nk [ERole; EStoich] s /\
     m = rev (combine (aut_order (recode g t nk)) (map s (aut_order (recode g t nk))))).
Proof. exact autsA_spec. Qed.
Print Assumptions C18_vf2_attr_count.

Theorem C18_vf2_attr_orbits : forall (g : vgraph) (t : ltab) (nk : list nsel), wf g ->
  part (node_ids g) (orbits_from_mappings (node_ids g) (autsA g t nk)) /\
  (forall u v, In u (node_ids g) ->
     (conn (orbits_from_mappings (node_ids g) (autsA g t nk)) u v <-> exists s, is_autA g t nk [ERole; EStoich] s /\ s u = v)).
Proof. exact autsA_orbits. Qed.
Print Assumptions C18_vf2_attr_orbits.

(** with the default selection these are the structure-preserving self-maps of all theorems above *)
Theorem C18_vf2_attr_default : forall (g : vgraph) (t : ltab) (s : N -> N), wf g ->
  (is_autA g t [NKind] [ERole; EStoich] s <-> is_aut g s).
Proof. exact is_autA_default. Qed.
Print Assumptions C18_vf2_attr_default.

(** Attribute selections on the SPECIES view (model/C18_SpAttrModel.v: arcs carry the aggregates stoich_r / stoich_p = minimum
    over the reactions containing the pair; compared with the code on the species-view `attrs` cases).  The species view of every
    network whose reactions mention listed species only is a well-formed graph, and for every selection of node keys
    (kind / label / absent) and edge keys (stoich_r / stoich_p / absent) the canonicaliser finds a leaf, reports the label of the
    reported permutation, and its canonical graph is the view relabelled by a bijection onto k+1..k+n (clause 1). *)
Theorem C18_spattr_view_wf : forall n : net,
  (forall r, In r (nrxns n) -> forall sc, In sc (lhs r ++ rhs r) -> In (fst sc) (nspecies n)) -> wf (view_spS n).
Proof. exact view_spS_wf. Qed.
Print Assumptions C18_spattr_view_wf.

Theorem C18_spattr_canon_iso : forall (g : vgraph) (t : ltab) (nk : list nsel) (ek : list sesel),
  wf g ->
  fst (canon_searchS g t nk ek) <> None /\
  forall lab perm, fst (canon_searchS g t nk ek) = Some (lab, perm) ->
    lab = labelG g (fun v => map (nval g t v) nk) (fun a => map (evalS a) ek) (length ek) perm /\
    canon_graph g perm = relabel (cid perm) g /\ inj_on (cid perm) (node_ids g) /\
    (exists k, Permutation (node_ids (canon_graph g perm)) (map N.of_nat (seq (S k) (length (vnodes g))))) /\
    wf (canon_graph g perm) /\
    (forall v, In v (node_ids g) -> kind_of (canon_graph g perm) (cid perm v) = kind_of g v) /\
    (forall u v, In u (node_ids g) -> In v (node_ids g) ->
       find_arc (canon_graph g perm) (cid perm u) (cid perm v) = find_arc g u v).
Proof. exact (fun g t nk ek => canon_isoG g (fun v => map (nval g t v) nk) (fun a => map (evalS a) ek) (length nk) (length ek)). Qed.
Print Assumptions C18_spattr_canon_iso.

(** The approximate orbits of the WL tool are unions of the exact ones: two nodes that the canonicaliser reports in one orbit set
    carry the same WL colour (hence lie in one WL cell), for every choice of n_iter / include_in_neighbors / include_out_neighbors. *)
Theorem C18_wl_coarser_than_orbits : forall (g : vgraph) (lab p : list N) (inb outb : bool) (n_iter : nat),
  wf g -> kinds_ok g -> arcs_ok g -> fst (canon_search g) = Some (lab, p) ->
  forall c u v, In c (orbits_from_perms (min_leaves g)) -> In u c -> In v c -> In u (node_ids g) ->
    col_get (wl_colors g [] [NKind] [ERole; EStoich] inb outb n_iter) u = col_get (wl_colors g [] [NKind] [ERole; EStoich] inb outb n_iter) v.
Proof. exact wl_coarser_than_orbits. Qed.
Print Assumptions C18_wl_coarser_than_orbits.

(** Clause 2 for EVERY attribute selection, first half (bipartite view).  The full statement -- the canonical graphs agree on the
    selected attributes -- is C18_attr_invariant_full below, on the domain D described there (no 'label' key, 'kind' or 'bipartite'
    selected, loop-free view).  Proved here for every selection and view: the renamed, re-presented view [g'] (with the label table
    renamed along, [relab_tab]) receives the SAME minimal label, and its minimal leaves are exactly the renamed minimal leaves of
    [g] -- so automorphism_count is invariant.  Outside D the second half is not proved: it needs the selected attributes read back
    from [labelA] (the analogue of label_read; impossible in general when 'label' is selected and names contain '|' or ':').
    Proof: the generic leaf-enumeration equivariance of lib/IRCore instantiated with the selection's signature, initial partition
    and label (proof/C18_AttrEquiv.v). *)
Theorem C18_attr_invariant_partial : forall (f : N -> N), (forall x y, f x = f y -> x = y) ->
  forall (g g' : vgraph) (t : ltab) (nk : list nsel) (ek : list esel),
  wf g -> geq g' (relabel f g) ->
  option_map fst (fst (canon_searchA g' (relab_tab f t) nk ek)) = option_map fst (fst (canon_searchA g t nk ek)) /\
  Permutation (map (map f) (snd (canon_searchA g t nk ek))) (snd (canon_searchA g' (relab_tab f t) nk ek)).
Proof. exact attr_invariant_partial. Qed.
Print Assumptions C18_attr_invariant_partial.

(** the same for the selections on the species view (aggregates stoich_r / stoich_p) *)
Theorem C18_spattr_invariant_partial : forall (f : N -> N), (forall x y, f x = f y -> x = y) ->
  forall (g g' : vgraph) (t : ltab) (nk : list nsel) (ek : list sesel),
  wf g -> geq g' (relabel f g) ->
  option_map fst (fst (canon_searchS g' (relab_tab f t) nk ek)) = option_map fst (fst (canon_searchS g t nk ek)) /\
  Permutation (map (map f) (snd (canon_searchS g t nk ek))) (snd (canon_searchS g' (relab_tab f t) nk ek)).
Proof. exact spattr_invariant_partial. Qed.
Print Assumptions C18_spattr_invariant_partial.

(** Clause 4 for EVERY attribute selection, sound half.  The full statement -- the minimal leaves are EXACTLY the images of the
    best permutation under the self-maps that preserve the selected attributes ([is_autG]: injective on the nodes, nodes to nodes,
    selected node attributes as compared and as printed, presence and selected attributes of every arc) -- is C18_attr_count_exact
    below, on the domain D described there; outside D only this half is proved.  Proved here for every selection and view: every such
    self-map sends minimal leaves to minimal leaves and is determined on the nodes by the image of one minimal leaf -- hence
    automorphism_count is AT LEAST the number of these self-maps (it can only over-count if [labelA] fails to separate, see above). *)
Theorem C18_attr_count_lower_partial : forall (g : vgraph) (t : ltab) (nk : list nsel) (ek : list esel),
  wf g ->
  (forall s q, is_autG g (fun v => map (nval g t v) nk) (fun a => map (eval a) ek) s ->
     In q (snd (canon_searchA g t nk ek)) -> In (map s q) (snd (canon_searchA g t nk ek))) /\
  (forall (s s' : N -> N) q, In q (snd (canon_searchA g t nk ek)) -> map s q = map s' q ->
     forall v, In v (node_ids g) -> s v = s' v).
Proof.
  exact (fun g t nk ek Hw => conj (fun s q => attr_count_lower_partial g t nk ek s q Hw)
           (fun s s' q Hq => autG_determined g (nvA g t nk) (evA ek) (length nk) (length ek) Hw s s' q
                               (eq_ind _ (fun a => In q (snd a)) Hq _ (canon_searchA_G g t nk ek)))).
Qed.
Print Assumptions C18_attr_count_lower_partial.

Theorem C18_spattr_count_lower_partial : forall (g : vgraph) (t : ltab) (nk : list nsel) (ek : list sesel),
  wf g ->
  forall s q, is_autG g (fun v => map (nval g t v) nk) (fun a => map (evalS a) ek) s ->
    In q (snd (canon_searchS g t nk ek)) -> In (map s q) (snd (canon_searchS g t nk ek)).
Proof. exact (fun g t nk ek Hw s q => spattr_count_lower_partial g t nk ek s q Hw). Qed.
Print Assumptions C18_spattr_count_lower_partial.

(** The cached-view state machine, for EVERY script (no premise): the version counters of CRNHyperGraph / _CRNGraphBackend implement
    exactly dirty flags.  [flag_hist] is a version-free specification: a mutating method call marks every analyzer dirty, an edit of
    a side object behind the hypergraph's back marks nothing (this is where stale answers come from), a read rebuilds the view from
    the current network value iff the analyzer is dirty or was never read, and serves the view it holds. *)
Theorem C18_backend_is_dirty_flags : forall (n0 : net) (v0 : N) (steps : list hstep),
  run_hist (HG n0 v0, []) steps = flag_hist n0 [] steps.
Proof. exact backend_history_flags. Qed.
Print Assumptions C18_backend_is_dirty_flags.

(** Under integer_ids=True clause 2 holds for EVERY injective renaming of the species -- also one that maps a species label onto
    a reaction id: species and reactions are numbered separately, so the numbered network never has a view-id collision.
    [net_struct n]: species, reaction ids and the species inside one side are pairwise distinct (they are dict keys in
    CRNHyperGraph) and the reactions mention listed species only.  Compare C18_species_renaming_refuted for the default naming. *)
Theorem C18_intids_species_renaming : forall (st : bool) (f : N -> N) (n : net) (lab p lab' p' : list N),
  net_struct n -> inj_on f (nspecies n) ->
  (forall r, In r (nrxns n) -> forall sc, In sc (lhs r ++ rhs r) -> (0 < snd sc)%Z) ->
  fst (canon_search (view true st (intids_net n))) = Some (lab, p) ->
  fst (canon_search (view true st (intids_net (rename_species f n)))) = Some (lab', p') ->
  lab' = lab /\ geq (canon_graph (view true st (intids_net (rename_species f n))) p') (canon_graph (view true st (intids_net n)) p).
Proof. exact (fun st f n lab p lab' p' Hs Hf => intids_species_renaming f n Hs Hf st lab p lab' p'). Qed.
Print Assumptions C18_intids_species_renaming.

(** WLCanonicalizer._estimate_aut_count (product of the factorials of the colour-cell sizes, every factor and the product capped
    at automorphism_cap) is never an under-estimate: it is at least min(cap, number of structure-preserving self-maps), for every
    choice of n_iter / include_in_neighbors / include_out_neighbors.  ([length (auts g)] is that number: C18_vf2_count; it equals the
    canonicaliser's automorphism_count.)  Proof: every self-map permutes every colour cell (C18_wl_never_splits_orbit) and is
    determined by its action on the cells, so the self-maps inject into the product of the permutation lists of the cells. *)
Theorem C18_wl_estimate_upper : forall (g : vgraph) (inb outb : bool) (n_iter : nat) (cap : N), wf g ->
  (N.min cap (N.of_nat (length (auts g)))
   <= estimate (map (@length N) (wl_cells g (wl_colors g [] [NKind] [ERole; EStoich] inb outb n_iter))) 1%N cap)%N.
Proof. exact (fun g inb outb n cap Hw => wl_estimate_upper g inb outb n Hw cap). Qed.
Print Assumptions C18_wl_estimate_upper.

(** The two exact tools under one node selection without 'label' (default edge keys): the canonicaliser never reports fewer
    automorphisms than the enumerator of the VF2 tool lists under the same selection (each listed self-map yields its own minimal
    leaf: C18_vf2_attr_count + C18_attr_count_lower_partial).  The converse inequality holds on the domain D of C18_attr_count_exact below
    (there the minimal leaves are exactly the images under these self-maps); outside D it is not proved. *)
Theorem C18_attr_count_ge_vf2 : forall (g : vgraph) (t : ltab) (nk : list nsel),
  wf g -> Forall (fun x => x <> NLabel) nk ->
  length (autsA g t nk) <= length (snd (canon_searchA g t nk [ERole; EStoich])).
Proof. exact canon_count_ge_vf2. Qed.
Print Assumptions C18_attr_count_ge_vf2.

(** Reading of "the species view": hypergraph_to_species_graph is called without include_stoich, and the DEFAULT
    edge_attr_keys ("role", "stoich") do not exist on its arcs, so in the species view the default canonical form, automorphism count and
    orbits see arcs and kinds only -- "stoichiometry on / off" is the same configuration there, and "structure-preserving" in clauses 2-4
    means: arcs (direction, loops) and kinds.  The coefficients enter only through edge_attr_keys = ("stoich_r", "stoich_p")
    (model/C18_SpAttrModel.v; C18_spattr_* theorems, second halves judged by the oracle). *)
Theorem C18_species_view_ignores_stoich : forall (st st' : bool) (n : net), view false st n = view false st' n.
Proof. reflexivity. Qed.
Print Assumptions C18_species_view_ignores_stoich.

(** Consequence (witness A >> B versus 2A >> B): two networks that differ in a coefficient have the SAME default species view -- hence
    the same canonical graph on the keyed attributes, and A >> B, 2B >> A has 2 self-maps there -- while the species view with the
    aggregates tells them apart. *)
Theorem C18_species_view_coefficients_invisible : exists n n' : net,
  view false true n = view false true n' /\ view_spS n <> view_spS n'.
Proof. exact species_view_coefficients_invisible. Qed.
Print Assumptions C18_species_view_coefficients_invisible.

(** The label of a selection read back (proof/C18_LabelA.v).
    Domain D of the full theorems below: BIPARTITE-view selections with node keys from kind / bipartite / absent keys (no 'label':
    names may contain '|' or ':'), at least one of kind / bipartite selected (otherwise every node piece of the label is empty),
    any edge keys, on a view without self-loops ([_label] skips i = j; every bipartite view of a network without a view-id collision
    is loop-free: C18_net_attr_count_exact needs no such premise).  Outside D the four _partial theorems above remain what is proved;
    what is missing there is (i) recovering self-loops from the refinement signature for selections (the analogue of loop_from_key;
    needed for species views with catalysts), (ii) a parse of labels whose node pieces are empty, (iii) nothing can be done for 'label'. *)
From SK Require Import proof.C18_LabelA proof.C18_LabelA_Examples.

(** label_read for labelA: the label determines, position by position, the selected node attributes and, for distinct positions,
    presence and selected attributes of the arcs. *)
Theorem C18_labelA_read : forall (g : vgraph) (t : ltab) (nk : list nsel) (ek : list esel) (p q : list N),
  wf g -> kinds_ok g -> arcs_ok g -> Forall (fun x => x <> NLabel) nk -> (In NKind nk \/ In NBip nk) ->
  incl p (node_ids g) -> incl q (node_ids g) -> labelA g t nk ek p = labelA g t nk ek q ->
  length p = length q /\
  (forall i, i < length p -> map (nval g t (nth i p 0%N)) nk = map (nval g t (nth i q 0%N)) nk) /\
  (forall i j, i < length p -> j < length p -> i <> j ->
     option_map (fun a => map (eval a) ek) (find_arc g (nth i p 0%N) (nth j p 0%N))
     = option_map (fun a => map (eval a) ek) (find_arc g (nth i q 0%N) (nth j q 0%N))).
Proof. exact labelA_read. Qed.
Print Assumptions C18_labelA_read.

(** Clause 4, count, IN FULL on D (where C18_attr_count_lower_partial gives one half): the minimal leaves are a duplicate-free list of
    exactly the images of the best permutation under the self-maps that preserve the selected attributes. *)
Theorem C18_attr_count_exact : forall (g : vgraph) (t : ltab) (nk : list nsel) (ek : list esel) (lab p : list N),
  wf g -> kinds_ok g -> arcs_ok g -> Forall (fun x => x <> NLabel) nk -> (In NKind nk \/ In NBip nk) ->
  (forall v, find_arc g v v = None) -> fst (canon_searchA g t nk ek) = Some (lab, p) ->
  NoDup (snd (canon_searchA g t nk ek)) /\
  forall q, In q (snd (canon_searchA g t nk ek)) <->
            exists s, is_autG g (fun v => map (nval g t v) nk) (fun a => map (eval a) ek) s /\ q = map s p.
Proof. exact (fun g t nk ek lab p Hw Hk Ha Hnl Hne => attr_count_exact g t nk ek Hw Hk Ha Hnl Hne lab p). Qed.
Print Assumptions C18_attr_count_exact.

(** Clause 4, orbits, IN FULL on D: two nodes share a reported orbit set iff some self-map preserving the selected attributes sends
    one to the other (the slot-based union-find proofs of C18_orbits are generic in the group). *)
Theorem C18_attr_orbits_exact : forall (g : vgraph) (t : ltab) (nk : list nsel) (ek : list esel) (lab p : list N),
  wf g -> kinds_ok g -> arcs_ok g -> Forall (fun x => x <> NLabel) nk -> (In NKind nk \/ In NBip nk) ->
  (forall v, find_arc g v v = None) -> fst (canon_searchA g t nk ek) = Some (lab, p) ->
  forall u v, In u (node_ids g) ->
    ((exists c, In c (orbits_from_perms (snd (canon_searchA g t nk ek))) /\ In u c /\ In v c) <->
     (exists s, is_autG g (fun v => map (nval g t v) nk) (fun a => map (eval a) ek) s /\ s u = v)).
Proof. exact attr_orbits_exact. Qed.
Print Assumptions C18_attr_orbits_exact.

(** Clause 2 IN FULL on D (where C18_attr_invariant_partial gives the first half).  The canonical graphs of a renamed, re-presented view agree
    ON THE SELECTED ATTRIBUTES ([canon_nodesG]: canonical id with the selected node attributes, [canon_arcsG]: canonical arc with the
    selected edge attributes).  Identity of the full attribute graphs is false for reduced selections: which of several minimal
    leaves is found first depends on the names, and they differ by self-maps that preserve only the selected attributes. *)
Theorem C18_attr_invariant_full : forall (f : N -> N), (forall x y, f x = f y -> x = y) ->
  forall (g g' : vgraph) (t : ltab) (nk : list nsel) (ek : list esel) (lab p lab' p' : list N),
  wf g -> kinds_ok g -> arcs_ok g -> Forall (fun x => x <> NLabel) nk -> (In NKind nk \/ In NBip nk) ->
  (forall v, find_arc g v v = None) -> geq g' (relabel f g) ->
  fst (canon_searchA g t nk ek) = Some (lab, p) -> fst (canon_searchA g' (relab_tab f t) nk ek) = Some (lab', p') ->
  lab' = lab /\
  Permutation (canon_nodesG g' (fun v => map (nval g' (relab_tab f t) v) nk) p') (canon_nodesG g (fun v => map (nval g t v) nk) p) /\
  Permutation (canon_arcsG g' (fun a => map (eval a) ek) p') (canon_arcsG g (fun a => map (eval a) ek) p).
Proof. exact (fun f fi g g' t nk ek lab p lab' p' => attr_invariant_full f fi g g' t nk ek lab p lab' p'). Qed.
Print Assumptions C18_attr_invariant_full.

(** On NETWORKS: the bipartite view of a network without a view-id collision is loop-free, so clause 4 (count) holds in full for every
    such selection without a premise on the view. *)
Theorem C18_net_attr_count_exact : forall (st : bool) (n : net) (t : ltab) (nk : list nsel) (ek : list esel) (lab p : list N),
  net_ok st n -> (forall r, In r (nrxns n) -> forall sc, In sc (lhs r ++ rhs r) -> (0 < snd sc)%Z) ->
  Forall (fun x => x <> NLabel) nk -> (In NKind nk \/ In NBip nk) ->
  fst (canon_searchA (view true st n) t nk ek) = Some (lab, p) ->
  NoDup (snd (canon_searchA (view true st n) t nk ek)) /\
  forall q, In q (snd (canon_searchA (view true st n) t nk ek)) <->
            exists s, is_autG (view true st n) (fun v => map (nval (view true st n) t v) nk) (fun a => map (eval a) ek) s /\ q = map s p.
Proof. exact net_attr_count_exact. Qed.
Print Assumptions C18_net_attr_count_exact.

(** Species-view selections (aggregates stoich_r / stoich_p): clause 4 (count) in full on LOOP-FREE species views with coefficients
    >= -1 ([arcsS_ok]).  Species views with catalysts / null steps have self-loops: there C18_spattr_count_lower_partial and
    C18_spattr_invariant_partial remain what is proved (missing: (i) above). *)
Theorem C18_spattr_count_exact : forall (g : vgraph) (t : ltab) (nk : list nsel) (ek : list sesel) (lab p : list N),
  wf g -> kinds_ok g -> arcsS_ok g -> Forall (fun x => x <> NLabel) nk -> (In NKind nk \/ In NBip nk) ->
  (forall v, find_arc g v v = None) -> fst (canon_searchS g t nk ek) = Some (lab, p) ->
  NoDup (snd (canon_searchS g t nk ek)) /\
  forall q, In q (snd (canon_searchS g t nk ek)) <->
            exists s, is_autG g (fun v => map (nval g t v) nk) (fun a => map (evalS a) ek) s /\ q = map s p.
Proof. exact (fun g t nk ek lab p Hw Hk Ha Hnl Hne => spattr_count_exact g t nk ek Hw Hk Ha Hnl Hne lab p). Qed.
Print Assumptions C18_spattr_count_exact.

(** ... and clause 2 in full for the species-view selections on loop-free species views: same minimal label, same canonical graph on
    the selected attributes. *)
Theorem C18_spattr_invariant_full : forall (f : N -> N), (forall x y, f x = f y -> x = y) ->
  forall (g g' : vgraph) (t : ltab) (nk : list nsel) (ek : list sesel) (lab p lab' p' : list N),
  wf g -> kinds_ok g -> arcsS_ok g -> Forall (fun x => x <> NLabel) nk -> (In NKind nk \/ In NBip nk) ->
  (forall v, find_arc g v v = None) -> geq g' (relabel f g) ->
  fst (canon_searchS g t nk ek) = Some (lab, p) -> fst (canon_searchS g' (relab_tab f t) nk ek) = Some (lab', p') ->
  lab' = lab /\
  Permutation (canon_nodesG g' (fun v => map (nval g' (relab_tab f t) v) nk) p') (canon_nodesG g (fun v => map (nval g t v) nk) p) /\
  Permutation (canon_arcsG g' (fun a => map (evalS a) ek) p') (canon_arcsG g (fun a => map (evalS a) ek) p).
Proof. exact (fun f fi g g' t nk ek lab p lab' p' => spattr_invariant_full f fi g g' t nk ek lab p lab' p'). Qed.
Print Assumptions C18_spattr_invariant_full.
