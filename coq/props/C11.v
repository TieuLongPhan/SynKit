From Coq Require Import List NArith Arith Permutation Sorted.
From SK Require Import lib.LGraph lib.Mono model.C11_Model proof.C11_Aut proof.C11_WL proof.C11_Dedup proof.C11_Main proof.C11_Comp proof.C11_VF2 proof.C11_Vocab proof.C11_Sig proof.C11_Anchor model.C11_State proof.C11_StateProof model.C11_Partial proof.C11_PartialProof proof.C11_PruneClass proof.C11_WLPart proof.C11_Idem model.C11_Keys model.C11_Attr proof.C11_AttrProof model.C11_Orbit proof.C11_OrbitProof proof.C11_Extend model.C11_Order proof.C11_OrderProof model.C11_Views proof.C11_ViewsProof proof.C11_Singleton proof.C11_Count proof.C11_WLMono model.C11_AttrFull proof.C11_Subset model.C11_State2 proof.C11_State2Proof model.C11_Attr3 proof.C11_Attr3Proof model.C11_Image proof.C11_ImageProof proof.C11_Lone.
Import ListNotations.

(** Vocabulary (definitions in proof/C11_Aut.v, written out here for the reader):
      simple_graph g            := NoDup (node_ids g) /\ no edge joins a node to itself        (implied by LGraph.wf)
      is_automorphism fn fe g s := s maps node_ids g into node_ids g, injectively, preserves the node label
                                   [lab_of fn g] and the adjacency with its edge label [adj_of fe g] (absent stays absent)
      aut_pairs g s             := rev (map (fun u => (u, s u)) (node_ids g))
      same_orbit fn fe g u v    := exists m, In m (auts fn fe g) /\ In (u, v) m
    [auts fn fe g] is the model of networkx VF2 [GraphMatcher(g, g).isomorphisms_iter()]: the verified enumerator
    lib/Mono.v [monos] (induced, g into g).  The code uses only the number of enumerated maps and the set of
    their (node, image) pairs; the correspondence compares both on every case, which monitors the premise
    "VF2 lists every label-preserving self-isomorphism exactly once". *)

(** The specification vocabulary of this file, unfolded: every equivalence below holds by definition (conversion). *)
Theorem C11_vocabulary :
  forall (fn : nlab -> N) (fe : elab -> N) (g : graph) (s : N -> N) (u v : N) (m m' : mapping)
         (O : list (list N)) (c : list N) (cs : list (list N)) (E : list mapping),
  (simple_graph g <-> NoDup (node_ids g) /\ forall a b x, In (a, b, x) (gedges g) -> a <> b) /\
  (is_automorphism fn fe g s <->
     (forall u, In u (node_ids g) -> In (s u) (node_ids g)) /\
     (forall u v, In u (node_ids g) -> In v (node_ids g) -> s u = s v -> u = v) /\
     (forall u, In u (node_ids g) -> option_map fn (label g (s u)) = option_map fn (label g u)) /\
     (forall u v, In u (node_ids g) -> In v (node_ids g) ->
        option_map fe (LGraph.adj g (s u) (s v)) = option_map fe (LGraph.adj g u v))) /\
  aut_pairs g s = rev (map (fun u => (u, s u)) (node_ids g)) /\
  (same_orbit fn fe g u v <-> exists m, In m (auts fn fe g) /\ In (u, v) m) /\
  (same_items m m' <-> forall ph, In ph m <-> In ph m') /\
  (exact_orbits fn fe g O <->
     (forall u, In u (node_ids g) -> exists o, In o O /\ In u o) /\
     (forall o u, In o O -> In u o -> In u (node_ids g)) /\
     (forall o1 o2 u, In o1 O -> In o2 O -> In u o1 -> In u o2 -> o1 = o2) /\
     NoDup O /\
     (forall o u v, In o O -> In u o -> (In v o <-> same_orbit fn fe g u v))) /\
  (pairwise_disjoint (c :: cs) <-> (forall d, In d cs -> forall x, In x c -> ~ In x d) /\ pairwise_disjoint cs) /\
  (nodupR same_items (m :: E) <-> (forall y, In y E -> ~ same_items m y) /\ nodupR same_items E) /\
  app_map m u = match assoc u m with Some q => q | None => u end /\
  act m m' = map (fun ph => (app_map m (fst ph), snd ph)) m'.
Proof. exact vocabulary. Qed.
Print Assumptions C11_vocabulary.

(** Clause 1 (count).  The enumeration is a duplicate-free list of exactly the label-preserving automorphisms, and
    the reported number is its length — for a graph with at most one component; otherwise the product of the
    per-component numbers (component swaps are not counted, as documented in the code). *)
Theorem C11_aut_count :
  forall (fn : nlab -> N) (fe : elab -> N) (g : graph), simple_graph g ->
    NoDup (auts fn fe g) /\
    (forall m, In m (auts fn fe g) <-> exists s, is_automorphism fn fe g s /\ m = aut_pairs g s) /\
    a_count (analyze fn fe g) =
      (if (length (components g) <=? 1)%nat then N.of_nat (length (auts fn fe g))
       else fold_left N.mul (map (fun c => N.of_nat (length (auts fn fe (induced_sub g c)))) (components g)) 1%N) /\
    (forall c, simple_graph (induced_sub g c)).
Proof.
  exact (fun fn fe g Hg => conj (auts_nodup fn fe g Hg) (conj (auts_listing fn fe g Hg)
           (conj (analyze_count fn fe g Hg) (fun c => induced_simple g c Hg)))).
Qed.
Print Assumptions C11_aut_count.

(** The listed maps form a group: identity, composition, inverse (this is what makes "exchangeable" an
    equivalence relation). *)
Theorem C11_aut_group :
  forall (fn : nlab -> N) (fe : elab -> N) (g : graph), simple_graph g ->
    is_automorphism fn fe g (fun u => u) /\
    (forall s t, is_automorphism fn fe g s -> is_automorphism fn fe g t -> is_automorphism fn fe g (fun u => s (t u))) /\
    (forall s, is_automorphism fn fe g s ->
       exists t, is_automorphism fn fe g t /\ forall u, In u (node_ids g) -> t (s u) = u /\ s (t u) = u).
Proof. exact aut_group. Qed.
Print Assumptions C11_aut_group.

(** VF2 as an explicit premise.  [analyze_component_with ns E] is Automorphism._analyze_component with the enumeration
    [gm.isomorphisms_iter()] abstracted to an arbitrary list E; the model's [analyze_component fn fe g] is this function
    at [auts fn fe g].  Contract of VF2: E lists every label-preserving automorphism exactly once.  Under the contract
    the analysis (count and orbit list) is the one the theorems above and below talk about. *)
Theorem C11_vf2_contract :
  forall (fn : nlab -> N) (fe : elab -> N) (g : graph) (E : list mapping), simple_graph g ->
    NoDup E ->
    (forall m, In m E <-> exists s, is_automorphism fn fe g s /\ m = aut_pairs g s) ->
    analyze_component_with (node_ids g) E = analyze_component fn fe g /\
    length E = length (auts fn fe g).
Proof. exact vf2_contract_suffices. Qed.
Print Assumptions C11_vf2_contract.

(** The same with the maps as networkx delivers them — dictionaries, item order unspecified.  [same_items m m'] :=
    forall ph, In ph m <-> In ph m';  [nodupR same_items E] := no two members of E have the same items.  Contract:
    E contains only automorphisms, every automorphism, none twice (all up to item order). *)
Theorem C11_vf2_contract_items :
  forall (fn : nlab -> N) (fe : elab -> N) (g : graph) (E : list mapping), simple_graph g ->
    (forall m, In m E -> exists s, is_automorphism fn fe g s /\ same_items m (aut_pairs g s)) ->
    (forall s, is_automorphism fn fe g s -> exists m, In m E /\ same_items m (aut_pairs g s)) ->
    nodupR same_items E ->
    analyze_component_with (node_ids g) E = analyze_component fn fe g /\
    length E = length (auts fn fe g).
Proof. exact vf2_contract_items. Qed.
Print Assumptions C11_vf2_contract_items.

(** Clause 2 (orbits).  [exact_orbits fn fe g O] (proof/C11_Aut.v) says: every node lies in some member of O; members
    contain only nodes; two members sharing a node are equal; O has no repeated member; and for u in a member o,
    v is in o IFF some listed automorphism maps u to v.  Written out for the connected case; for a disconnected
    graph the reported list consists of the members of the per-component analyses, each of which is exact for its
    component (induced subgraph). *)
Theorem C11_orbits_exact :
  forall (fn : nlab -> N) (fe : elab -> N) (g : graph), simple_graph g ->
    ((length (components g) <= 1)%nat ->
       let O := a_orbits (analyze fn fe g) in
       (forall u, In u (node_ids g) -> exists o, In o O /\ In u o) /\
       (forall o u, In o O -> In u o -> In u (node_ids g)) /\
       (forall o1 o2 u, In o1 O -> In o2 O -> In u o1 -> In u o2 -> o1 = o2) /\
       NoDup O /\
       (forall o u v, In o O -> In u o -> (In v o <-> same_orbit fn fe g u v))) /\
    ((1 < length (components g))%nat ->
       forall o, In o (a_orbits (analyze fn fe g)) <->
                 exists c, In c (components g) /\ In o (fst (analyze_component fn fe (induced_sub g c)))) /\
    (forall c, exact_orbits fn fe (induced_sub g c) (fst (analyze_component fn fe (induced_sub g c)))) /\
    NoDup (a_orbits (analyze fn fe g)) /\
    (forall u, In u (node_ids g) -> exists o, In o (a_orbits (analyze fn fe g)) /\ In u o).
Proof.
  exact (fun fn fe g Hg => conj (analyze_orbits_connected fn fe g Hg) (conj (analyze_orbits_disconnected fn fe g Hg)
           (conj (fun c => analyze_component_orbits fn fe (induced_sub g c) (induced_simple g c Hg))
              (conj (analyze_orbits_nodup fn fe g Hg) (orbits_cover fn fe g Hg))))).
Qed.
Print Assumptions C11_orbits_exact.

(** Clause 2 for every graph, connected or not: the reported orbits partition the node set; for a disconnected graph
    two nodes share an orbit IFF they lie in one component and an automorphism of that component (induced subgraph)
    maps one to the other — component swaps excluded, as the code documents.  Needs [wf] (the components are the
    classes of the connectivity relation of lib/Reach.v, pairwise disjoint: C11_components below). *)
Theorem C11_orbits_partition :
  forall (fn : nlab -> N) (fe : elab -> N) (g : graph), wf g ->
    let O := a_orbits (analyze fn fe g) in
    (forall u, In u (node_ids g) -> exists o, In o O /\ In u o) /\
    (forall o u, In o O -> In u o -> In u (node_ids g)) /\
    (forall o1 o2 u, In o1 O -> In o2 O -> In u o1 -> In u o2 -> o1 = o2) /\
    NoDup O /\
    ((1 < length (components g))%nat ->
       forall o u v, In o O -> In u o ->
         (In v o <-> exists c, In c (components g) /\ In u c /\ same_orbit fn fe (induced_sub g c) u v)).
Proof. exact orbits_partition_all. Qed.
Print Assumptions C11_orbits_partition.

(** [components g] (nx.connected_components): every member is the set of nodes connected to one of the nodes
    (Reach.conn over the neighbour lists), members are pairwise disjoint and cover the nodes. *)
Theorem C11_components :
  forall g : graph, wf g ->
    (forall c, In c (components g) ->
       exists u, In u (node_ids g) /\ forall x, In x c <-> Reach.conn (nbrs g) [u] x) /\
    pairwise_disjoint (components g) /\
    (forall u, In u (node_ids g) -> exists c, In c (components g) /\ In u c).
Proof. exact components_spec. Qed.
Print Assumptions C11_components.

(** The anchor components handed to the de-duplicators (round 3).  Automorphism.anchor_component (disconnected graphs only)
    is a reported component of maximal size; AutoEst.anchor_component is a reported component that no other component
    precedes in the order "larger first, then smaller minimal node id" ([not_before c A] := |c| < |A| \/ (|c| = |A| /\
    minN A <= minN c)). *)
Theorem C11_anchors :
  forall (fn : nlab -> N) (fe : elab -> N) (g : graph),
    (forall A, a_anchor (analyze fn fe g) = Some A ->
       In A (components g) /\ forall c, In c (components g) -> (length c <= length A)%nat) /\
    (components g <> [] ->
       In (wl_anchor g) (components g) /\ forall c, In c (components g) -> not_before c (wl_anchor g)).
Proof. exact anchors_all. Qed.
Print Assumptions C11_anchors.

(** Reused objects (round 3; model/C11_State.v: an Automorphism instance holds a reference to the caller's graph and caches
    its analysis at the first read; AutoEst.fit() recomputes).  For a history "edit the graph in place, read" on ONE
    Automorphism object every answer is the analysis of the value the graph had at the FIRST read (no invalidation);
    an object not read before the edit answers for the edited value; reading twice changes nothing; an estimator
    fitted again after every edit always answers for the current value; reading an unfitted estimator is an error. *)
Theorem C11_object_state :
  forall (fn : nlab -> N) (fe : elab -> N) (k : nat) (g0 : graph) (gs : list graph),
    reads fn fe (a_new g0) gs = map (fun _ => analyze fn fe (hd g0 gs)) gs /\
    (forall g g', fst (a_read fn fe (a_edit g' (a_new g))) = analyze fn fe g') /\
    (forall o, let '(a, o') := a_read fn fe o in a_read fn fe o' = (a, o')) /\
    refits fn fe k (e_new g0) gs = map (fun g => Some (wl fn fe g k)) gs /\
    e_colors (e_new g0) = None.
Proof. exact objects_all. Qed.
Print Assumptions C11_object_state.

(** Clause 2, second sentence (the fast estimate).  After any number [k] of WL-1 sweeps (AutoEst max_iter), every
    automorphism that preserves the labels the estimate was given keeps the colour of every node — component swaps
    included —, so a colour class (estimated orbit) never contains one node of a true orbit without the other. *)
Theorem C11_wl_never_splits :
  forall (fn : nlab -> N) (fe : elab -> N) (g : graph) (k : nat), wf g ->
    (forall s, is_automorphism fn fe g s ->
       forall u, In u (node_ids g) -> col (wl fn fe g k) (s u) = col (wl fn fe g k) u) /\
    (forall m u v, In m (auts fn fe g) -> In (u, v) m -> col (wl fn fe g k) v = col (wl fn fe g k) u) /\
    (forall o u v, In o (wl_orbits (wl fn fe g k)) -> In u o -> same_orbit fn fe g u v -> In v o).
Proof.
  exact (fun fn fe g k Hwf => conj (fun s Hs => wl_invariant fn fe g Hwf s Hs k)
           (conj (fun m u v => wl_never_splits_listed fn fe g k m u v Hwf)
              (fun o u v => wl_orbits_never_split fn fe g k o u v Hwf))).
Qed.
Print Assumptions C11_wl_never_splits.

(** The estimated orbits themselves (round 3): the colour classes partition the node set, and a class is exactly the set
    of nodes with one colour. *)
Theorem C11_wl_partition :
  forall (fn : nlab -> N) (fe : elab -> N) (g : graph) (k : nat),
    NoDup (node_ids g) ->
    let O := wl_orbits (wl fn fe g k) in
    (forall u, In u (node_ids g) -> exists o, In o O /\ In u o) /\
    (forall o u, In o O -> In u o -> In u (node_ids g)) /\
    (forall o1 o2 u, In o1 O -> In o2 O -> In u o1 -> In u o2 -> o1 = o2) /\
    (forall o u v, In o O -> In u o -> (In v o <-> In v (node_ids g) /\ col (wl fn fe g k) v = col (wl fn fe g k) u)).
Proof. exact wl_orbits_partition. Qed.
Print Assumptions C11_wl_partition.

(** The premise [wf g] is decided by the model function [wfb], which the correspondence evaluates on every graph. *)
Theorem C11_wfb_sound : forall g : graph, wfb g = true -> wf g.
Proof. exact wfb_wf. Qed.
Print Assumptions C11_wfb_sound.

(** Clause 3: de-duplication returns a sub-list of its input in the original order —
    deduplicate_matches_with_anchor (every orbit / anchor / host-orbit configuration; [None] = ValueError),
    deduplicate_matches_by_automorphisms, and the pruning step of SynReactor.mappings(). *)
Theorem C11_dedup_sublist :
  forall (X : Type) (key : X -> mapping) (xs : list X),
    (forall porbs anchor horbs out, dedup_anchor key xs porbs anchor horbs = Some out -> subseq out xs) /\
    (forall A, subseq (dedup_aut key A xs) xs) /\
    (forall rc, subseq (prune key rc xs) xs).
Proof. exact dedup_sublist_all. Qed.
Print Assumptions C11_dedup_sublist.

(** Clause 3, sharpened (round 3): deduplicate_matches_with_anchor keeps exactly the FIRST match of every signature class.
    [anchor_signature porbs anchor horbs] (proof/C11_Sig.v) is the signature the function computes for one match from its
    orbit arguments; [dedup_anchor_h] takes the host anchor as a further argument, which does not influence the result
    (the code accepts and ignores it).  For a duplicate-free input: the output is a subsequence; the same output is
    obtained without host anchor; without any orbit argument the input is returned; otherwise every match has a signature
    (else ValueError = None) and x is kept IFF no earlier match has the signature of x. *)
Theorem C11_dedup_first_of_class :
  forall (X : Type) (key : X -> mapping) (xs : list X) porbs anchor horbs hanchor out,
    NoDup xs ->
    dedup_anchor_h key xs porbs anchor horbs hanchor = Some out ->
    subseq out xs /\
    dedup_anchor_h key xs porbs anchor horbs None = Some out /\
    ((porbs = None /\ horbs = None /\ out = xs) \/
     ((porbs <> None \/ horbs <> None) /\
      (forall x, In x xs -> anchor_signature porbs anchor horbs (key x) <> None) /\
      forall x, In x out <->
        (In x xs /\ forall l1 l2, xs = l1 ++ x :: l2 -> forall z, In z l1 ->
                      anchor_signature porbs anchor horbs (key z) <> anchor_signature porbs anchor horbs (key x)))).
Proof. exact dedup_anchor_first_all. Qed.
Print Assumptions C11_dedup_first_of_class.

(** PartialMatcher._prune_automorphic_mappings: the empty list is returned as it is, otherwise the function above on the
    WL-1 orbits of the host (after [k] = wl_max_iter sweeps) with the host anchor; the result is a subsequence. *)
Theorem C11_partial_prune :
  forall (X : Type) (key : X -> mapping) (fn : nlab -> N) (h : graph) (k : nat) (xs : list X),
    partial_prune key fn h k xs =
      match xs with
      | [] => Some []
      | _ => dedup_anchor key xs None [] (Some (wl_orbits (wl fn e_order h k)))
      end /\
    forall out, partial_prune key fn h k xs = Some out -> subseq out xs.
Proof. exact (fun X key fn h k xs => conj (partial_prune_spec X key fn h k xs) (partial_prune_subseq X key fn h k xs)). Qed.
Print Assumptions C11_partial_prune.

(** ... and over the list of hosts the class stores: pruning happens only for exactly one host; otherwise the (non-empty)
    list is returned unchanged; always a subsequence. *)
Theorem C11_partial_prune_hosts :
  forall (X : Type) (key : X -> mapping) (fn : nlab -> N) (k : nat) (xs : list X),
    (forall h, partial_prune_hosts key fn [h] k xs = partial_prune key fn h k xs) /\
    (forall hosts, length hosts <> 1%nat -> xs <> [] -> partial_prune_hosts key fn hosts k xs = Some xs) /\
    (forall hosts out, partial_prune_hosts key fn hosts k xs = Some out -> subseq out xs).
Proof. exact partial_prune_hosts_all. Qed.
Print Assumptions C11_partial_prune_hosts.

(** Clause 4 (pruning), first half: every raw match is represented by a kept match — the same list element, the
    same set of (pattern node, host node) items, or its items are those of the kept match with the pattern node
    moved by an automorphism [s] of the rule centre ([app_map s p] = s[p]); i.e. m = m' o s^-1. *)
Theorem C11_prune_complete :
  forall (X : Type) (key : X -> mapping) (rc : graph) (raw : list X) (x : X),
    In x raw ->
    exists y, In y (prune key rc raw) /\
      (y = x \/ (forall ph, In ph (key x) <-> In ph (key y)) \/
       exists s, In s (rule_auts rc) /\
         forall p h, In (p, h) (key x) <-> exists p', In (p', h) (key y) /\ p = app_map s p').
Proof. exact prune_complete_all. Qed.
Print Assumptions C11_prune_complete.

(** [rep_ok rc raw] is the computed form of this statement (key = identity); the correspondence evaluates it on the
    implementation's own lists (with every symmetry checked to be an automorphism) and on the model. *)
Theorem C11_rep_ok : forall (rc : graph) (raw : list mapping), rep_ok rc raw = true.
Proof. exact rep_ok_true. Qed.
Print Assumptions C11_rep_ok.

(** The same at the level of functions: when the matches are defined on nodes of the rule centre (as the search
    engine guarantees; Python's sigma[p] would raise otherwise), every raw match m is m' o sigma^-1 for a kept match m'
    and a label-preserving automorphism sigma of the rule centre (all node attributes except atom_map, all edge
    attributes). *)
Theorem C11_prune_complete_aut :
  forall (X : Type) (key : X -> mapping) (rc : graph) (raw : list X),
    simple_graph rc ->
    (forall x p h, In x raw -> In (p, h) (key x) -> In p (node_ids rc)) ->
    forall x, In x raw ->
    exists y, In y (prune key rc raw) /\
      exists s, is_automorphism n_full e_full rc s /\
        forall p h, In (p, h) (key x) <-> exists p', In (p', h) (key y) /\ p = s p'.
Proof. exact prune_complete_fun. Qed.
Print Assumptions C11_prune_complete_aut.

(** Clause 4, exactness (round 3): for a duplicate-free list of matches that live on nodes of the rule centre, a match is
    kept IFF no EARLIER raw match differs from it by an automorphism of the rule centre.  With C11_prune_complete_aut:
    the output consists of exactly one representative - the earliest - of every class, in input order. *)
Theorem C11_prune_first_of_class :
  forall (X : Type) (key : X -> mapping) (rc : graph) (raw : list X),
    simple_graph rc -> NoDup raw ->
    (forall x, In x raw -> forall p h, In (p, h) (key x) -> In p (node_ids rc)) ->
    forall x, In x (prune key rc raw) <->
      (In x raw /\
       forall l1 l2, raw = l1 ++ x :: l2 -> forall z, In z l1 ->
         ~ exists s, is_automorphism n_full e_full rc s /\
                     forall p h, In (p, h) (key x) <-> exists p', In (p', h) (key z) /\ p = s p').
Proof. exact prune_first_of_class. Qed.
Print Assumptions C11_prune_first_of_class.

(** Both de-duplicators are idempotent (round 3): pruning an already pruned list returns it unchanged - for
    deduplicate_matches_with_anchor with the same orbit arguments, and for the pruning step of the reactor. *)
Theorem C11_dedup_idempotent :
  forall (X : Type) (key : X -> mapping),
    (forall (xs : list X) porbs anchor horbs hanchor out, NoDup xs ->
       dedup_anchor_h key xs porbs anchor horbs hanchor = Some out ->
       dedup_anchor_h key out porbs anchor horbs hanchor = Some out) /\
    (forall (rc : graph) (raw : list X), simple_graph rc -> NoDup raw ->
       (forall x, In x raw -> forall p h, In (p, h) (key x) -> In p (node_ids rc)) ->
       prune key rc (prune key rc raw) = prune key rc raw).
Proof. exact (fun X key => conj (dedup_anchor_idempotent X key) (prune_idempotent X key)). Qed.
Print Assumptions C11_dedup_idempotent.

(** Clause 4, second half: hence every result function [res] (gluing the rule at a match, up to the identification
    used for "distinct") that depends only on the item set of a match and is invariant under the rule automorphisms
    takes exactly the same set of values on the kept matches as on all raw matches.  The invariance of gluing is
    the named premise (it is C05's gluing equivariance; here it is exercised end-to-end by the oracle on every
    prune case: set of standardised reactions and of ITS hashes with pruning on = with every raw match glued). *)
Theorem C11_prune_same_results :
  forall (X R : Type) (key : X -> mapping) (rc : graph) (raw : list X) (res : mapping -> R),
    (forall m m', (forall ph, In ph m <-> In ph m') -> res m = res m') ->
    (forall s x, In s (rule_auts rc) -> In x raw -> res (act s (key x)) = res (key x)) ->
    forall r, In r (map (fun x => res (key x)) raw) <-> In r (map (fun x => res (key x)) (prune key rc raw)).
Proof. exact prune_same_results. Qed.
Print Assumptions C11_prune_same_results.

(** Attribute dictionaries and key options (round 5; model/C11_Attr.v).  The model receives the attribute dictionaries of
    the networkx graph ([agraph]: key code -> value code per node / edge) and the key options as the caller gave them;
    [pick dflt keys d] is the tuple [d.get(k, dflt k) for k in keys] (default 0 for "charge", "*" for any other node
    key, 1.0 for an edge key), [to_graph nk ek ag] the graph the analysis runs on (tuples numbered by first occurrence).
    [attr_automorphism nk ek ag s] (proof/C11_AttrProof.v) := s maps nodes to nodes injectively, keeps the tuple of
    configured node attribute values and maps every pair of nodes to a pair with the same tuple of configured edge
    attribute values (non-edges to non-edges).  Then: the label-preserving automorphisms of the analysed graph - the
    maps all theorems above talk about - are exactly these; the estimate never separates nodes exchanged by one; two
    attribute graphs with the same configured tuples are analysed alike; an absent attribute IS its default value and an
    attribute outside the configured keys is not looked at. *)
Theorem C11_configured_labels_only :
  forall (nk ek : list N) (ag : agraph),
    node_ids (to_graph nk ek ag) = node_ids ag /\
    (wf ag -> wf (to_graph nk ek ag)) /\
    (forall s, is_automorphism n_exact e_order (to_graph nk ek ag) s <->
       (forall u, In u (node_ids ag) -> In (s u) (node_ids ag)) /\
       (forall u v, In u (node_ids ag) -> In v (node_ids ag) -> s u = s v -> u = v) /\
       (forall u, In u (node_ids ag) ->
          option_map (pick node_default nk) (label ag (s u)) = option_map (pick node_default nk) (label ag u)) /\
       (forall u v, In u (node_ids ag) -> In v (node_ids ag) ->
          option_map (pick edge_default ek) (LGraph.adj ag (s u) (s v)) =
          option_map (pick edge_default ek) (LGraph.adj ag u v))) /\
    (forall s, is_automorphism n_wl e_order (to_graph nk ek ag) s <-> attr_automorphism nk ek ag s) /\
    (wf ag -> forall s k u, attr_automorphism nk ek ag s -> In u (node_ids ag) ->
       col (wl n_exact e_order (to_graph nk ek ag) k) (s u) = col (wl n_exact e_order (to_graph nk ek ag) k) u) /\
    (forall ag', picked nk ek ag' = picked nk ek ag -> to_graph nk ek ag' = to_graph nk ek ag) /\
    (forall k u d r l2, gnodes ag = r ++ (u, d) :: l2 -> assoc k d = None ->
       picked nk ek (LG (r ++ (u, (k, node_default k) :: d) :: l2) (gedges ag)) = picked nk ek ag) /\
    (forall k v u d r l2, gnodes ag = r ++ (u, d) :: l2 -> ~ In k nk ->
       picked nk ek (LG (r ++ (u, (k, v) :: d) :: l2) (gedges ag)) = picked nk ek ag).
Proof. exact configured_labels_only. Qed.
Print Assumptions C11_configured_labels_only.

(** The option rules themselves: Automorphism takes the defaults for a FALSY key argument (None or empty), AutoEst only
    for None (an empty list = no label: every tuple is empty). *)
Theorem C11_key_options :
  (forall d : list N, exact_keys d None = d) /\ (forall d : list N, exact_keys d (Some []) = d) /\
  (forall (d : list N) k r, exact_keys d (Some (k :: r)) = k :: r) /\
  (forall d : list N, wl_keys d None = d) /\ (forall (d l : list N), wl_keys d (Some l) = l) /\
  (forall (dflt : N -> N) (d : attrs), pick dflt [] d = []).
Proof. exact key_options. Qed.
Print Assumptions C11_key_options.

(** The labels of a RULE symmetry (round 5; graph_automorphisms(graph, ignore_node_attrs), default ("atom_map",)): the
    model receives the attribute dictionaries of rule.rc.raw; [to_rule_graph skip ag] is the graph whose automorphisms
    [rule_auts] enumerates for the pruning step ([run_prune_attr], evaluated on every rule application).  Its
    automorphisms - the sigma of C11_prune_complete_aut / C11_prune_first_of_class - are exactly the node permutations
    under which every node keeps its attribute dictionary up to the ignored keys ([assoc k d = assoc k d'] for every key
    k that is not ignored: same keys present, same values) and every pair of nodes keeps its edge attribute dictionary
    (all keys; non-edges go to non-edges). *)
Theorem C11_rule_labels :
  forall (skip : list N) (ag : agraph),
    node_ids (to_rule_graph skip ag) = node_ids ag /\
    (wf ag -> wf (to_rule_graph skip ag)) /\
    (forall s, is_automorphism n_full e_full (to_rule_graph skip ag) s <->
       (forall u, In u (node_ids ag) -> In (s u) (node_ids ag)) /\
       (forall u v, In u (node_ids ag) -> In v (node_ids ag) -> s u = s v -> u = v) /\
       (forall u, In u (node_ids ag) ->
          match label ag (s u), label ag u with
          | Some d, Some d' => forall k, ~ In k skip -> assoc k d = assoc k d'
          | None, None => True
          | _, _ => False
          end) /\
       (forall u v, In u (node_ids ag) -> In v (node_ids ag) ->
          match LGraph.adj ag (s u) (s v), LGraph.adj ag u v with
          | Some d, Some d' => forall k, ~ In k [] -> assoc k d = assoc k d'
          | None, None => True
          | _, _ => False
          end)) /\
    (wf ag -> forall m, In m (rule_auts_attr skip ag) <->
       exists s, rule_automorphism skip ag s /\ m = aut_pairs (to_rule_graph skip ag) s).
Proof. exact rule_labels. Qed.
Print Assumptions C11_rule_labels.

(** orbit.py (round 5; model/C11_Orbit.v): OrbitAccuracy(approx, exact) applied to the WL-1 estimate and the exact
    analysis of one connected graph.  [oa_valid] = the class accepts the two lists (same node set, else ValueError);
    [inter_size a e] = len(a & e), an entry of the confusion map; [same_in P u v] = the two nodes have the same member
    index in P (the test of the pairwise accuracy; index = LAST member containing the node); [oa_pairwise] =
    (agreeing pairs, pairs).  Because the estimate never separates a true orbit: the lists are accepted; an exact orbit
    lies wholly inside an estimated class or is disjoint from it; nodes the truth puts together are together in the
    estimate (every pairwise error is a merge); and if the estimate merges nothing the truth separates, the pairwise
    accuracy is 1. *)
Theorem C11_orbit_accuracy :
  forall (fn : nlab -> N) (fe : elab -> N) (g : graph) (k : nat),
    wf g -> (length (components g) <= 1)%nat ->
    let A := wl_orbits (wl fn fe g k) in
    let E := a_orbits (analyze fn fe g) in
    oa_valid A E = true /\
    (forall a e, In a A -> In e E -> inter_size a e = 0%N \/ inter_size a e = N.of_nat (length (canonN e))) /\
    (forall u v, In u (node_ids g) -> same_in E u v = true -> same_in A u v = true) /\
    ((forall u v, In u (node_ids g) -> In v (node_ids g) -> same_in A u v = true -> same_in E u v = true) ->
     fst (oa_pairwise A E) = snd (oa_pairwise A E)).
Proof. exact (fun fn fe g k Hwf _ => orbit_accuracy_all fn fe g k Hwf). Qed.
Print Assumptions C11_orbit_accuracy.

(** The observable of an [aut] case evaluates the analysis once; it is the composition of the functions the theorems
    talk about. *)
Theorem C11_aut_observable :
  forall g : graph,
    run_aut_all g = Tok.L [ run_aut g; Tok.tbool (wfb g); Tok.tlist t_maps (aut_lists g); run_aut_oa g ] /\
    run_aut_full g = Tok.L [ run_aut g; Tok.tbool (wfb g); Tok.tlist t_maps (aut_lists g); run_aut_oa g; run_order g ].
Proof. exact (fun g => conj (run_aut_all_eq g) (run_aut_full_eq g)). Qed.
Print Assumptions C11_aut_observable.

(** ... and the one evaluated on every [aut] case since the attribute dictionaries are handed to the model: the same
    composition on [to_graph DEF_NODE DEF_EDGE ag] (the graph of C11_configured_labels_only with the default keys), the
    reactor's 4-attribute estimate on [to_graph WL4 DEF_EDGE ag]. *)
Theorem C11_aut_observable_attr :
  forall ag : agraph,
    let g4 := to_graph WL4 DEF_EDGE ag in
    let gx := to_graph DEF_NODE DEF_EDGE ag in
    let a := analyze n_exact e_order gx in
    run_aut_full_attr ag =
    Tok.L [ Tok.L [ Tok.tN (a_count a); t_sets (a_orbits a); Tok.tlist (Tok.tset Tok.tN) (a_comps a);
                    Tok.topt (Tok.tset Tok.tN) (a_anchor a); wl_obs n_wl g4; wl_obs n_exact gx ];
            Tok.tbool (wfb gx); Tok.tlist t_maps (aut_lists gx); run_aut_oa gx; run_order gx ].
Proof. exact run_aut_full_attr_eq. Qed.
Print Assumptions C11_aut_observable_attr.

(** Clause 2, second sentence, for the orbits the exact analysis REPORTS - every graph, connected or not (round 5).  For a
    disconnected graph the reported orbits are those of the components (component swaps excluded).  An automorphism of a
    component extends by the identity to an automorphism of the whole graph, so a reported orbit lies inside an orbit of
    the full group; hence the estimate, after any number of sweeps, gives two nodes of one reported orbit the same
    colour, and every reported orbit lies inside one estimated class. *)
Theorem C11_wl_never_splits_reported :
  forall (fn : nlab -> N) (fe : elab -> N) (g : graph) (k : nat), wf g ->
    (forall c s, In c (components g) -> is_automorphism fn fe (induced_sub g c) s ->
       is_automorphism fn fe g (fun u => if LGraph.mem u c then s u else u)) /\
    (forall o u v, In o (a_orbits (analyze fn fe g)) -> In u o -> In v o ->
       col (wl fn fe g k) v = col (wl fn fe g k) u) /\
    (forall o u, In o (a_orbits (analyze fn fe g)) -> In u o ->
       exists a, In a (wl_orbits (wl fn fe g k)) /\ forall v, In v o -> In v a).
Proof. exact wl_never_splits_reported. Qed.
Print Assumptions C11_wl_never_splits_reported.

(** ... and therefore C11_orbit_accuracy without the connectedness premise. *)
Theorem C11_orbit_accuracy_all :
  forall (fn : nlab -> N) (fe : elab -> N) (g : graph) (k : nat),
    wf g ->
    let A := wl_orbits (wl fn fe g k) in
    let E := a_orbits (analyze fn fe g) in
    oa_valid A E = true /\
    (forall a e, In a A -> In e E -> inter_size a e = 0%N \/ inter_size a e = N.of_nat (length (canonN e))) /\
    (forall u v, In u (node_ids g) -> same_in E u v = true -> same_in A u v = true) /\
    ((forall u v, In u (node_ids g) -> In v (node_ids g) -> same_in A u v = true -> same_in E u v = true) ->
     fst (oa_pairwise A E) = snd (oa_pairwise A E)).
Proof. exact orbit_accuracy_all. Qed.
Print Assumptions C11_orbit_accuracy_all.

(** The ORDER of the reported lists (round 5; model/C11_Order.v).  Automorphism.orbits is the orbit set sorted by the key
    [okey o] = (size, the numerals of the members sorted as strings and joined with "|") ([orbit_leb] compares two keys
    as Python compares (int, str) tuples): a permutation of the set - so every statement above about membership holds
    for the list -, sorted, and independent of the order in which the set was enumerated as long as no two members
    have the same key.  AutoEst.groups is a sorted permutation of the member lists; AutoEst.orbit_index sends a node
    to the position of a member that contains it and is defined for every covered node. *)
Theorem C11_orbit_order :
  forall (O : list (list N)) (cs : colouring),
    Permutation (sorted_orbits O) O /\
    (forall o, In o (sorted_orbits O) <-> In o O) /\
    Sorted (fun a b => orbit_leb a b = true) (sorted_orbits O) /\
    (forall O', Permutation O O' -> NoDup (map okey O) -> sorted_orbits O' = sorted_orbits O) /\
    Permutation (wl_groups cs) (map sortN (wl_orbits cs)) /\
    Sorted (fun a b => group_leb a b = true) (wl_groups cs) /\
    (forall u j, wl_orbit_index cs u = Some j ->
       In (nth (N.to_nat j) (wl_orbits cs) []) (wl_orbits cs) /\ In u (nth (N.to_nat j) (wl_orbits cs) [])) /\
    (forall u, (exists o, In o (wl_orbits cs) /\ In u o) -> exists j, wl_orbit_index cs u = Some j).
Proof. exact orbit_order. Qed.
Print Assumptions C11_orbit_order.

(** The remaining public views (round 5; model/C11_Views.v).  Automorphism(anchor_largest_component=False) changes nothing
    but the anchor (None); a graph for which is_connected holds has no anchor; AutoEst.components(nodes) raises exactly
    when a given node is unknown, without [nodes] returns the components of the graph sorted by (size, smallest id), and
    for a subset returns - in that order - exactly the components of the induced subgraph, which is well-formed again
    (so C11_components describes each member), covering every kept node. *)
Theorem C11_views :
  forall (fn : nlab -> N) (fe : elab -> N) (g : graph),
    analyze_flag true fn fe g = analyze fn fe g /\
    (let a := analyze_flag false fn fe g in
     a_count a = a_count (analyze fn fe g) /\ a_orbits a = a_orbits (analyze fn fe g) /\
     a_comps a = a_comps (analyze fn fe g) /\ a_anchor a = None) /\
    (a_is_connected g = true -> a_anchor (analyze fn fe g) = None) /\
    (forall ns, est_components g (Some ns) = None <-> exists n, In n ns /\ ~ In n (node_ids g)) /\
    (wf g -> est_components g None = Some (sort_comps (components g))) /\
    (wf g -> forall nodes out, est_components g nodes = Some out ->
       exists keep, keep_nodes g nodes = Some keep /\ wf (induced_sub g keep) /\
         length out = length (components (induced_sub g keep)) /\
         (forall c, In c out <-> In c (components (induced_sub g keep))) /\
         (forall u, In u (node_ids g) -> In u keep -> exists c, In c out /\ In u c)).
Proof. exact views_all. Qed.
Print Assumptions C11_views.

(** The safe region of deduplicate_matches_with_anchor (round 5; planned in DESIGN section 5 as
    "C11_prune_sound_exact_orbits_singletons").  [prepare (Some porbs) anchor] is the output of _prepare_pattern_orbits (the
    correspondence compares it): the orbits disjoint from the anchor, and the sorted anchor nodes.  If every such free
    orbit has at most one member, the free orbits are pairwise distinct, and every match is a dictionary (distinct keys)
    on covered pattern nodes, then - without host orbits - every input match has the same items as a kept match: the
    function drops duplicates only. *)
Theorem C11_dedup_singletons_sound :
  forall (X : Type) (key : X -> mapping) (xs : list X) (porbs : list (list N)) (anchor : list N) (out : list X),
    let free := fst (prepare (Some porbs) anchor) in
    let anchored := snd (prepare (Some porbs) anchor) in
    (forall o, In o free -> (length o <= 1)%nat) ->
    NoDup (concat free) ->
    (forall x, In x xs -> NoDup (map fst (key x)) /\
                          forall p h, In (p, h) (key x) -> In p (concat free) \/ In p anchored) ->
    dedup_anchor key xs (Some porbs) anchor None = Some out ->
    forall x, In x xs -> exists y, In y out /\ forall ph, In ph (key x) <-> In ph (key y).
Proof. exact dedup_singletons_sound. Qed.
Print Assumptions C11_dedup_singletons_sound.

(** ... and outside it the function merges matches that NO symmetry of the pattern relates (path a-b-c-d with its exact
    orbits {b,c}, {a,d}: m and m' differ by exchanging a and d only; replayed on the implementation by
    corpus/regress/C11/dedup_merge_unrelated.json).  This is not a violation of the property (clause 3 asks for a sub-list,
    clause 4 is about the reactor, which prunes by rule automorphisms since fix aa7fe3c); it delimits what the function's
    remaining caller, PartialMatcher(prune_auto=True), may expect. *)
Theorem C11_dedup_orbit_sets_merge_unrelated :
  let O := a_orbits (analyze n_exact e_order ex_p4) in
  wfb ex_p4 = true /\ O = [[2; 3]; [1; 4]]%N /\
  dedup_anchor (fun m : mapping => m) [ex_m1; ex_m2] (Some O) [] None = Some [ex_m1] /\
  length (auts n_exact e_order ex_p4) = 2%nat /\
  (forall s, In s (auts n_exact e_order ex_p4) -> set_eqb ex_m2 (act s ex_m1) = false) /\
  set_eqb ex_m2 ex_m1 = false.
Proof. exact dedup_orbit_sets_merge_unrelated. Qed.
Print Assumptions C11_dedup_orbit_sets_merge_unrelated.

(** Clauses 1 and 2 for a disconnected graph, SEMANTICALLY (round 5): "per component, with component swaps deliberately
    excluded" means: with respect to the label-preserving automorphisms of the WHOLE graph that map every component into
    itself ([keeps_components g s] := forall c x, In c (components g) -> In x c -> In (s x) c).  The reported orbits are
    exactly the orbits of that subgroup, and the reported number - the product of the per-component numbers - is the
    number of listed automorphisms of the whole graph that keep the components ([kept_auts] = filter of [auts] by the
    computed test [keepsb]; restriction to the components and combination by cases are inverse bijections with the
    tuples of component automorphisms).  Holds for every [wf] graph, connected or not. *)
Theorem C11_orbits_no_swaps :
  forall (fn : nlab -> N) (fe : elab -> N) (g : graph), wf g ->
    forall o u v, In o (a_orbits (analyze fn fe g)) -> In u o ->
      (In v o <-> exists s, is_automorphism fn fe g s /\ keeps_components g s /\ s u = v).
Proof. exact orbits_no_swaps. Qed.
Print Assumptions C11_orbits_no_swaps.

Theorem C11_count_no_swaps :
  forall (fn : nlab -> N) (fe : elab -> N) (g : graph), wf g ->
    a_count (analyze fn fe g) = N.of_nat (length (filter (keepsb g) (auts fn fe g))) /\
    (forall m, In m (filter (keepsb g) (auts fn fe g)) <->
       exists s, is_automorphism fn fe g s /\
                 (forall c x, In c (components g) -> In x c -> In (s x) c) /\ m = aut_pairs g s).
Proof. exact count_no_swaps. Qed.
Print Assumptions C11_count_no_swaps.

(** The numerals and the canonical order (round 5).  [repr_N n] is Python's repr of a non-negative int: decimal digits
    ('0' = 48), most significant first, value n, non-empty, no leading zero, no '|'.  Hence the sort key determines the
    orbit as a set, the keys of the reported orbits are pairwise distinct, and the premise of C11_orbit_order is
    discharged: Automorphism.orbits as a list does not depend on the order in which Python enumerates the orbit set. *)
Theorem C11_repr_numeral :
  forall n : N,
    fold_left (fun a d => (10 * a + (d - 48))%N) (repr_N n) 0%N = n /\
    Forall (fun d => (48 <= d <= 57)%N) (repr_N n) /\ repr_N n <> [] /\
    (n <> 0%N -> hd 0%N (repr_N n) <> 48%N) /\ ~ In 124%N (repr_N n).
Proof. exact repr_N_spec. Qed.
Print Assumptions C11_repr_numeral.

Theorem C11_reported_order_canonical :
  forall (fn : nlab -> N) (fe : elab -> N) (g : graph), wf g ->
    (forall o o', okey o = okey o' -> forall x, In x o <-> In x o') /\
    NoDup (map okey (a_orbits (analyze fn fe g))) /\
    (forall O', Permutation (a_orbits (analyze fn fe g)) O' ->
       sorted_orbits O' = sorted_orbits (a_orbits (analyze fn fe g))).
Proof. exact (fun fn fe g H => conj okey_inj (reported_order_canonical fn fe g H)). Qed.
Print Assumptions C11_reported_order_canonical.

(** Clause 4, proved half, in terms of what the reactor really holds (round 5): [rc] is the attribute-dictionary graph of
    rule.rc.raw, [skip] the ignored node attributes (the reactor: atom_map), [prune key (to_rule_graph skip rc) raw] the
    pruning step as the correspondence evaluates it ([run_prune_attr]).  Every raw match is m' o sigma^-1 for a kept match
    m' and a symmetry sigma of the RULE - a node permutation keeping every node attribute except the ignored ones and
    every edge attribute -, and (duplicate-free raw list) a match is kept IFF no earlier raw match differs from it by such
    a symmetry. *)
Theorem C11_prune_attr :
  forall (X : Type) (key : X -> mapping) (skip : list N) (rc : agraph) (raw : list X),
    wf rc ->
    (forall x p h, In x raw -> In (p, h) (key x) -> In p (node_ids rc)) ->
    (forall x, In x raw ->
       exists y, In y (prune key (to_rule_graph skip rc) raw) /\
         exists s, rule_automorphism skip rc s /\
           forall p h, In (p, h) (key x) <-> exists p', In (p', h) (key y) /\ p = s p') /\
    (NoDup raw ->
     forall x, In x (prune key (to_rule_graph skip rc) raw) <->
       (In x raw /\
        forall l1 l2, raw = l1 ++ x :: l2 -> forall z, In z l1 ->
          ~ exists s, rule_automorphism skip rc s /\
                      forall p h, In (p, h) (key x) <-> exists p', In (p', h) (key z) /\ p = s p')).
Proof. exact prune_attr. Qed.
Print Assumptions C11_prune_attr.

(** The sweeps of the estimate (round 5; AutoEst max_iter).  Allowing one more sweep either changes nothing or applies
    [refine_once] once more; the colour classes only get finer (equal colours with k + j permitted sweeps => equal colours
    with k); and once a sweep changes nothing, every larger max_iter gives the same colouring.  With C11_wl_never_splits:
    true orbits are contained in the classes after k + 1 sweeps, which are contained in the classes after k sweeps. *)
Theorem C11_wl_sweeps :
  forall (fn : nlab -> N) (fe : elab -> N) (g : graph) (k : nat), NoDup (node_ids g) ->
    (wl fn fe g (S k) = wl fn fe g k \/ wl fn fe g (S k) = fst (refine_once fe g (wl fn fe g k))) /\
    (forall u v, In u (node_ids g) -> In v (node_ids g) ->
       col (wl fn fe g (S k)) u = col (wl fn fe g (S k)) v -> col (wl fn fe g k) u = col (wl fn fe g k) v) /\
    (forall j u v, In u (node_ids g) -> In v (node_ids g) ->
       col (wl fn fe g (k + j)) u = col (wl fn fe g (k + j)) v -> col (wl fn fe g k) u = col (wl fn fe g k) v) /\
    (snd (refine_once fe g (wl fn fe g k)) = false -> forall j, wl fn fe g (k + j) = wl fn fe g k).
Proof. exact wl_sweeps. Qed.
Print Assumptions C11_wl_sweeps.

(** deduplicate_matches_by_automorphisms with a SUBSET of the rule symmetries (round 5; the docstring: "Any subset of the
    automorphism group is safe; a smaller subset only prunes less").  [rel1 A m m'] := m has the items of m', or the items
    of m' with the pattern side moved by a member of A.  For a duplicate-free list of matches on the rule centre and any
    list A' of rule symmetries: whatever the full group keeps, A' keeps too; and every raw match is still related, by a
    symmetry of the full group, to a match A' keeps. *)
Theorem C11_dedup_subset_safe :
  forall (X : Type) (key : X -> mapping) (rc : graph) (raw : list X) (A' : list mapping),
    simple_graph rc -> NoDup raw ->
    (forall x, In x raw -> forall p h, In (p, h) (key x) -> In p (node_ids rc)) ->
    (forall s, In s A' -> In s (rule_auts rc)) ->
    (forall x, In x (dedup_aut key (rule_auts rc) raw) -> In x (dedup_aut key A' raw)) /\
    (forall x, In x raw -> exists y, In y (dedup_aut key A' raw) /\
       (set_eqb (key x) (key y) = true \/ exists s, In s (rule_auts rc) /\ set_eqb (key x) (act s (key y)) = true)).
Proof. exact dedup_subset_safe. Qed.
Print Assumptions C11_dedup_subset_safe.

(** AutoEst with its cached orbit index as a state machine (round 5; model/C11_State2.v; the histories of the correspondence
    run exactly [index_history]): before the first fit reading raises; after a fit the index is that of the colouring of the
    CURRENT graph whatever was cached; a second read returns the cached answer; an in-place edit without a new fit leaves
    the answer as it was; over a whole history "edit, read, fit, read, read" the stale answer is the previous fresh one. *)
Theorem C11_est_index_state :
  forall (fn : nlab -> N) (fe : elab -> N) (k : nat),
    (forall g, fst (s_orbit_index (s_new g)) = None) /\
    (forall o, fst (s_orbit_index (s_fit fn fe k o)) = Some (build_index (wl fn fe (s_graph o) k))) /\
    (forall o, let '(i, o') := s_orbit_index o in s_orbit_index o' = (i, o')) /\
    (forall o g', fst (s_orbit_index (s_edit g' o)) = fst (s_orbit_index o)) /\
    (forall gs o prev, fst (s_orbit_index o) = prev ->
       index_history fn fe k o gs =
       (fix go (p : option index_t) (l : list graph) :=
          match l with
          | [] => []
          | g :: r => let f := Some (build_index (wl fn fe g k)) in (p, f, f) :: go f r
          end) prev gs).
Proof. exact est_index_state. Qed.
Print Assumptions C11_est_index_state.

(** The graph with all three node labels and both edge labels, built inside the model from the attribute dictionaries
    (round 5; model/C11_Attr3.v [to_graph3]; the pattern / host of every dedup case, the views and the object histories
    are evaluated on it - no label is computed in Python any more).  Under each reading its automorphisms are the maps
    preserving the corresponding attribute data: the default keys of the exact analysis, the reactor's four estimate
    keys, the whole dictionaries without atom_map. *)
Theorem C11_three_views :
  forall ag : agraph,
    node_ids (to_graph3 ag) = node_ids ag /\
    (wf ag -> wf (to_graph3 ag)) /\
    (forall s, is_automorphism n_exact e_order (to_graph3 ag) s <-> attr_automorphism DEF_NODE DEF_EDGE ag s) /\
    (forall s, is_automorphism n_wl e_order (to_graph3 ag) s <-> attr_automorphism WL4 DEF_EDGE ag s) /\
    (forall s, is_automorphism n_full e_full (to_graph3 ag) s <-> rule_automorphism [K_atom_map] ag s).
Proof. exact three_views. Qed.
Print Assumptions C11_three_views.

(** Clause 4, second half, with a CONCRETE premise (round 5; model/C11_Image.v).  The labelled image of the rule centre under
    a match: [image_nodes rc m] = (host atom, full label of the rule atom placed on it), [image_edges rc m] = (host atom,
    host atom, full label of the rule bond placed on the pair); [same_image] compares both as sets.  For matches on the rule
    centre: every raw match has the labelled image of a kept match, so ANY result that is a function of the labelled image
    takes the same set of values on the kept matches as on all raw matches.  This replaces the abstract premise "invariant
    under rule automorphisms" of C11_prune_same_results by the more concrete "depends only on where each labelled rule atom
    and bond lands".  THAT GLUING IS SUCH A FUNCTION IS NOT PROVED ANYWHERE (no gluing model is instantiated for [res];
    C05's equivariance theorem is about renumbering, not about [same_image]): it remains a premise, judged end to end by
    the oracle on every rule application (set of standardised reactions and of ITS hashes with pruning on = with every
    match of the search engine glued).  [images_ok] is the computed form, evaluated on every rule application. *)
Theorem C11_prune_same_images :
  forall (X : Type) (key : X -> mapping) (rc : graph) (raw : list X),
    simple_graph rc ->
    (forall x p h, In x raw -> In (p, h) (key x) -> In p (node_ids rc)) ->
    (forall x, In x raw -> exists y, In y (prune key rc raw) /\ same_image rc (key x) (key y) = true) /\
    (forall y, In y (prune key rc raw) -> In y raw) /\
    (forall (R : Type) (res : mapping -> R),
       (forall m m', same_image rc m m' = true -> res m = res m') ->
       forall r, In r (map (fun x => res (key x)) raw) <-> In r (map (fun x => res (key x)) (prune key rc raw))) /\
    (forall m m', same_image rc m m' = true <->
       (forall x, In x (image_nodes rc m) <-> In x (image_nodes rc m')) /\
       (forall x, In x (image_edges rc m) <-> In x (image_edges rc m'))) /\
    (forall raw' : list mapping, dom_ok rc raw' = true -> images_ok rc raw' = true).
Proof.
  exact (fun X key rc raw Hg Hdom =>
           match prune_same_images X key rc raw Hg Hdom with
           | conj H1 (conj H2 H3) =>
               conj H1 (conj H2 (conj H3 (conj (same_image_spec rc) (fun raw' => images_ok_true rc raw' Hg))))
           end).
Qed.
Print Assumptions C11_prune_same_images.

(** Lone atoms (round 5, after the seeded change C11-w4-1, which analysed the lone atoms of a salt or of implicit-hydrogen
    water together with the one bonded molecule and thereby exchanged equally labelled lone atoms): a component that is a
    single atom is an orbit of its own; every counted automorphism fixes it; a graph of lone atoms only has exactly one
    counted automorphism - however many of them carry the same label (component swaps excluded). *)
Theorem C11_lone_atoms_fixed :
  forall (fn : nlab -> N) (fe : elab -> N) (g : graph), wf g ->
    (forall u o, In [u] (components g) -> In o (a_orbits (analyze fn fe g)) -> In u o -> forall v, In v o <-> v = u) /\
    (forall m, In m (filter (keepsb g) (auts fn fe g)) -> forall u, In [u] (components g) -> app_map m u = u) /\
    ((forall c, In c (components g) -> exists u, c = [u]) -> a_count (analyze fn fe g) = 1%N).
Proof. exact lone_atoms_fixed. Qed.
Print Assumptions C11_lone_atoms_fixed.

From SK Require Import model.C03_Model model.C05_Model model.C11_Agree proof.C05_Set proof.C05_Enum proof.C11_Glue proof.C11_GlueBridge.

(** Clause 4 WITHOUT the gluing premise (round 6; proof/C11_Glue.v, proof/C11_GlueBridge.v).  The gluing is C03's model
    [C03_Model.glue host rc m] (tied to SynReactor._glue_graph / _node_glue by C03's correspondence; [None] = no ITS is
    produced); [glue1] turns the option into a list; [obs_eq] = same label function and same adjacency function (C05).
    [rc : its] is C03's typed ITS graph of the rule centre, [g : graph] C11's graph of the same object (e.g.
    [to_rule_graph [K_atom_map] ag]); [agreeb g rc] (model/C11_Agree.v) is a COMPUTATION over the node list: same node
    list, equal labels on the same pairs of atoms, the enumerator's bond test answers alike - evaluated by the
    correspondence on every rule application whose rule centre is in C03's domain (expected and observed: true).
    Hypotheses left, all evaluated by a correspondence: [agreeb] (C11), [rc_ok] = distinct node ids, one entry per bond,
    bonds between listed atoms, and [match_ok] = a match is an injective dictionary on labelled atoms (C05's side_okb).
    Conclusion: C11's own pruning step [C11_Model.prune] is C05's, its symmetry list is C05's; kept matches are raw matches;
    every raw match that glues has a kept representative whose ITS is observationally equal - so the set of glued ITS
    graphs (hence, with the RDKit contract, of distinct reactions) is the same with and without the pruning.
    Proof: imports C05's glue_aut (glue(rc, m o s^-1) = glue(s.rc, m) and s.rc = rc as a labelled graph) and glue_obs. *)
Theorem C11_prune_same_glue :
  forall (g : C11_Model.graph) (rc : its) (host : hostg) (raw : list C11_Model.mapping),
    agreeb g rc = true ->
    (NoDup (node_ids rc) /\ simple_edgesb (gedges rc) = true /\
     (forall a b x, In (a, b, x) (gedges rc) -> In a (node_ids rc) /\ In b (node_ids rc))) ->
    (forall m, In m raw ->
       NoDup (map fst m) /\ NoDup (map snd m) /\
       forall q h, In (q, h) m -> (exists pn, label rc q = Some pn) /\ (exists hn, label host h = Some hn)) ->
    let kept := C11_Model.prune (fun m : C11_Model.mapping => m) g raw in
    (forall k, In k kept -> In k raw) /\
    (forall m T, In m raw -> glue host rc m = Some T ->
       exists k T', In k kept /\ glue host rc k = Some T' /\ obs_eq T T') /\
    (forall T, In T (flat_map (glue1 host rc) raw) -> exists T', In T' (flat_map (glue1 host rc) kept) /\ obs_eq T T') /\
    (forall T', In T' (flat_map (glue1 host rc) kept) -> In T' (flat_map (glue1 host rc) raw)).
Proof. exact c11_prune_same_glue. Qed.
Print Assumptions C11_prune_same_glue.

(** The bridge itself: under [agreeb] the two symmetry lists - C11's [rule_auts g] and C05's [rule_auts rc], both instances
    of the verified enumerator lib/Mono.v - are LITERALLY equal, and so are the two pruning steps. *)
Theorem C11_rule_auts_agree :
  forall (g : C11_Model.graph) (rc : its), agreeb g rc = true ->
    node_ids g = node_ids rc /\ C11_Model.rule_auts g = C05_Model.rule_auts rc /\
    forall raw : list C11_Model.mapping, C11_Model.prune (fun m : C11_Model.mapping => m) g raw = C05_Model.prune rc raw.
Proof. exact rule_auts_agree. Qed.
Print Assumptions C11_rule_auts_agree.

(** The same for the de-duplicator handed ANY list of symmetries each of which is a dictionary with the items of a listed
    automorphism of the rule (item order free - the form in which networkx delivers them to
    deduplicate_matches_by_automorphisms): nothing invented, nothing lost up to observational equality of the glued ITS. *)
Theorem C11_dedup_any_same_glue :
  forall (host : hostg) (rc : its) (A raw : list C11_Model.mapping),
    rc_ok rc -> (forall m, In m raw -> match_ok host rc m) ->
    (forall s, In s A -> NoDup (map fst s) /\ exists s', In s' (C05_Model.rule_auts rc) /\ forall ph, In ph s <-> In ph s') ->
    (forall k, In k (C11_Model.dedup_aut (fun m : C11_Model.mapping => m) A raw) -> In k raw) /\
    (forall m T, In m raw -> glue host rc m = Some T ->
       exists k T', In k (C11_Model.dedup_aut (fun m : C11_Model.mapping => m) A raw) /\ glue host rc k = Some T' /\ obs_eq T T').
Proof. exact dedup_any_same_glue. Qed.
Print Assumptions C11_dedup_any_same_glue.
