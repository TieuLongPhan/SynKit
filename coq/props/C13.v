(** C13 -- clustering partitions graphs exactly into isomorphism classes.
    Statements only; every proof is one [exact]: a lemma of proof/C13_*.v, or [eq_refl] / [iff_refl] where the statement
    only unfolds definitions.

    The functions are those of model/C13_Model.v which the correspondence evaluates on every run
    ([run] -> [step] -> [gc_iterative], [gc_fit], [lib_check], [cluster], [fit]), through the traced entry point
    [runr] -> [runx] -> [stepx] -> [gc_iterative_tr], [gc_fit_tr], [lib_check_tr], [cluster_tr], [fit_tr] of model/C13_Trace.v, whose
    results are those of the untraced functions (C13_trace_projection), on items whose graphs are the selection [project13] of
    the raw attribute dictionaries.
    Premises shared by the theorems (the oracle contract of the isomorphism test, monitored by the harness:
    networkx VF2 with element/charge/order matchers is compared with a brute-force reference on every pair):
      [iso] is a decidable equivalence on the items satisfying [D] (e.g. well-formed graphs);
      the pre-grouping attribute AS THE CODE READS IT ([gc_key mode]: nothing | the string | the sorted list)
      is invariant under [iso].
    Nothing else is assumed about [iso]: in particular the theorems cover the transitivity shortcut of the code
    (an item is compared only with the FIRST member of each class / with one stored template per class). *)
From Coq Require Import List NArith ZArith Bool Arith Permutation.
From SK Require Import lib.LGraph lib.C13_Partition model.C13_Model model.C13_Trace model.C13_Opts proof.C13_Proof proof.C13_More proof.C13_Iso proof.C13_Templates proof.C13_Clusters proof.C13_Before proof.C13_Trace proof.C13_TraceExact proof.C13_Raw proof.C13_Opts proof.C13_RawOrder proof.C13_RawBatch.
Import ListNotations.

(** 1. GraphCluster.fit / iterative_cluster: every item gets exactly one class (the list of classes has the length
    of the data, every entry is a number below the number of clusters, and rule_to_cluster contains the pair), and
    two items share a class IFF they are isomorphic. *)
Theorem C13_partition :
  forall (iso : item -> item -> bool) (mode : attr_mode) (D : item -> Prop),
  (forall x, D x -> iso x x = true) ->
  (forall x y, D x -> D y -> iso x y = true -> iso y x = true) ->
  (forall x y z, D x -> D y -> D z -> iso x y = true -> iso y z = true -> iso x z = true) ->
  (forall x y, D x -> D y -> iso x y = true -> gc_key mode x = gc_key mode y) ->
  forall data : list item, Forall D data ->
  length (gc_fit iso mode data) = length data /\
  forall i j x y, nth_error data i = Some x -> nth_error data j = Some y ->
  exists ci cj,
    nth_error (gc_fit iso mode data) i = Some (Some ci) /\
    nth_error (gc_fit iso mode data) j = Some (Some cj) /\
    ci < length (fst (gc_iterative iso mode data)) /\
    In (i, ci) (snd (gc_iterative iso mode data)) /\
    (ci = cj <-> iso x y = true).
Proof. exact partition_full. Qed.
Print Assumptions C13_partition.

(** the [clusters] list and the [rule_to_cluster] dictionary returned by iterative_cluster describe the same
    assignment, whatever [iso] is: cluster number c lists exactly the indices mapped to c *)
Theorem C13_clusters_agree :
  forall (iso : item -> item -> bool) (mode : attr_mode) (data : list item) (j c : nat),
  In (j, c) (snd (gc_iterative iso mode data)) <->
  In j (nth c (fst (gc_iterative iso mode data)) []) /\ c < length (fst (gc_iterative iso mode data)).
Proof. exact clusters_sync_in. Qed.
Print Assumptions C13_clusters_agree.

(** 2. the partition does not depend on the order of the list: for every permutation of the data (duplicates
    allowed; positions i, j / i', j' are any positions holding the same two items) the two items share a class in
    one run iff they do in the other, and the number of classes is the same. *)
Theorem C13_order_independent :
  forall (iso : item -> item -> bool) (mode : attr_mode) (D : item -> Prop),
  (forall x, D x -> iso x x = true) ->
  (forall x y, D x -> D y -> iso x y = true -> iso y x = true) ->
  (forall x y z, D x -> D y -> D z -> iso x y = true -> iso y z = true -> iso x z = true) ->
  (forall x y, D x -> D y -> iso x y = true -> gc_key mode x = gc_key mode y) ->
  forall data data' : list item, Permutation data data' -> Forall D data ->
  length (fst (gc_iterative iso mode data)) = length (fst (gc_iterative iso mode data')) /\
  forall i j i' j' x y,
    nth_error data i = Some x -> nth_error data j = Some y ->
    nth_error data' i' = Some x -> nth_error data' j' = Some y ->
    (nth_error (gc_fit iso mode data) i = nth_error (gc_fit iso mode data) j <->
     nth_error (gc_fit iso mode data') i' = nth_error (gc_fit iso mode data') j').
Proof. exact order_independent. Qed.
Print Assumptions C13_order_independent.

(** 3. BatchCluster.lib_check: from templates on which "same class" and "isomorphic representatives" coincide, a new
    item goes into the class of its isomorphic representative (templates unchanged), or -- when no representative is
    isomorphic -- into the fresh class max+1 (-1+1 = 0 without templates), which no template uses, and is appended
    as the representative of that class; the templates stay coherent. *)
Theorem C13_incremental :
  forall (iso : item -> item -> bool) (mode : attr_mode) (D : item -> Prop),
  (forall x, D x -> iso x x = true) ->
  (forall x y, D x -> D y -> iso x y = true -> iso y x = true) ->
  (forall x y z, D x -> D y -> D z -> iso x y = true -> iso y z = true -> iso x z = true) ->
  (forall x y, D x -> D y -> iso x y = true -> gc_key mode x = gc_key mode y) ->
  forall (x : item) (ts : list template),
  (Forall D (map fst ts) /\
   forall t t', In t ts -> In t' ts -> (iso (fst t) (fst t') = true <-> snd t = snd t')) ->
  D x ->
  let '(c, ts') := lib_check iso mode x ts in
  (Forall D (map fst ts') /\
   forall t t', In t ts' -> In t' ts' -> (iso (fst t) (fst t') = true <-> snd t = snd t')) /\
  (forall t, In t ts -> iso (fst t) x = true -> c = snd t /\ ts' = ts) /\
  ((forall t, In t ts -> iso (fst t) x = false) ->
     c = (fold_right Z.max (-1) (map snd ts) + 1)%Z /\ ~ In c (map snd ts) /\ ts' = ts ++ [(x, c)]).
Proof. exact incremental. Qed.
Print Assumptions C13_incremental.

(** ... and a whole run of BatchCluster.cluster (templates carried from item to item): templates only grow and stay
    coherent, every item gets one class, two items of the run share a class iff they are isomorphic, and an item
    has the class of a final template iff it is isomorphic to that representative. *)
Theorem C13_incremental_run :
  forall (iso : item -> item -> bool) (mode : attr_mode) (D : item -> Prop),
  (forall x, D x -> iso x x = true) ->
  (forall x y, D x -> D y -> iso x y = true -> iso y x = true) ->
  (forall x y z, D x -> D y -> D z -> iso x y = true -> iso y z = true -> iso x z = true) ->
  (forall x y, D x -> D y -> iso x y = true -> gc_key mode x = gc_key mode y) ->
  forall (data : list item) (ts : list template) (cs : list Z) (ts' : list template),
  (Forall D (map fst ts) /\
   forall t t', In t ts -> In t' ts -> (iso (fst t) (fst t') = true <-> snd t = snd t')) ->
  Forall D data ->
  cluster iso mode data ts = (cs, ts') ->
  (Forall D (map fst ts') /\
   forall t t', In t ts' -> In t' ts' -> (iso (fst t) (fst t') = true <-> snd t = snd t')) /\
  (exists ext, ts' = ts ++ ext) /\ length cs = length data /\
  (forall i j x y c c', nth_error data i = Some x -> nth_error data j = Some y ->
      nth_error cs i = Some c -> nth_error cs j = Some c' -> (c = c' <-> iso x y = true)) /\
  (forall i x c t, nth_error data i = Some x -> nth_error cs i = Some c -> In t ts' ->
      (c = snd t <-> iso (fst t) x = true)).
Proof. exact incremental_run. Qed.
Print Assumptions C13_incremental_run.

(** BatchCluster.fit with starting templates, or over more than one batch, IS that run of lib_check over the whole
    list (batch boundaries are invisible; templates are carried across batches) *)
Theorem C13_fit_is_incremental_run :
  forall (iso : item -> item -> bool) (mode : attr_mode)
         (data : list item) (ts : list template) (bs : option nat) (picks : list nat),
  match bs with None => True | Some b => 1 <= b end ->
  (ts <> [] \/ length (match bs with Some b => chunks b data | None => [data] end) <> 1) ->
  fit iso mode data ts bs picks = cluster iso mode data ts.
Proof. exact fit_is_cluster. Qed.
Print Assumptions C13_fit_is_incremental_run.

(** 4. batched clustering = one-shot clustering (both read list attributes as multisets).
    From no templates, BatchCluster.fit with any batch size and any sampler choices writes the same class NUMBERS as
    GraphCluster.fit (only reflexivity of the test is needed) ... *)
Theorem C13_batch_equals_oneshot :
  forall (iso : item -> item -> bool) (mode : attr_mode)
         (data : list item) (bs : option nat) (picks : list nat),
  match bs with None => True | Some b => 1 <= b end ->
  (forall x, In x data -> iso x x = true) ->
  fst (fit iso mode data [] bs picks) = map class_z (gc_fit iso mode data).
Proof. exact batch_equals_oneshot. Qed.
Print Assumptions C13_batch_equals_oneshot.

(** ... and for ANY arrival order (permutation of the list) the batched run yields the same partition as the
    one-shot run on the original order. *)
Theorem C13_batch_any_order :
  forall (iso : item -> item -> bool) (mode : attr_mode) (D : item -> Prop),
  (forall x, D x -> iso x x = true) ->
  (forall x y, D x -> D y -> iso x y = true -> iso y x = true) ->
  (forall x y z, D x -> D y -> D z -> iso x y = true -> iso y z = true -> iso x z = true) ->
  (forall x y, D x -> D y -> iso x y = true -> gc_key mode x = gc_key mode y) ->
  forall (data data' : list item) (bs : option nat) (picks : list nat),
  Permutation data data' -> Forall D data ->
  match bs with None => True | Some b => 1 <= b end ->
  forall i j i' j' x y,
    nth_error data i = Some x -> nth_error data j = Some y ->
    nth_error data' i' = Some x -> nth_error data' j' = Some y ->
    (nth_error (gc_fit iso mode data) i = nth_error (gc_fit iso mode data) j <->
     nth_error (fst (fit iso mode data' [] bs picks)) i' = nth_error (fst (fit iso mode data' [] bs picks)) j').
Proof. exact batch_any_order. Qed.
Print Assumptions C13_batch_any_order.

(** 5. the attribute premise cannot be dropped: with a pre-grouping attribute that is NOT isomorphism-invariant two
    isomorphic items are separated (this is the documented domain restriction of the property text, not a defect) *)
Theorem C13_noninvariant_attribute_splits :
  exists (iso : item -> item -> bool) (data : list item),
    (forall x y, iso x y = true) /\
    gc_fit iso AStr data = [Some 0; Some 1].
Proof. exact noninvariant_attribute_splits. Qed.
Print Assumptions C13_noninvariant_attribute_splits.

(** ** 6. the premises about [iso] are THEOREMS for the isomorphism test the model evaluates.
    [item_iso labelled defs] = equal node counts + non-empty result of the verified enumerator Mono.monos (induced)
    with the element/charge node matcher and the order edge matcher ([labelled = false]: topology only).
    On well-formed items (distinct node ids, every node carries the configured attributes) it decides exactly the
    existence of a label- and bond-preserving bijection, and it is reflexive, symmetric and transitive.
    What stays trusted is only that networkx VF2 returns the same verdicts (compared on every run). *)
Theorem C13_isomorphic_meaning :
  forall (labelled : bool) (defs : list N) (g1 g2 : graph),
  isomorphic labelled defs g1 g2 <->
  length (gnodes g1) = length (gnodes g2) /\
  exists f : N -> N,
    NoDup (map f (node_ids g2)) /\ incl (map f (node_ids g2)) (node_ids g1) /\
    (forall u, In u (node_ids g2) -> node_match labelled defs (label g1 (f u)) (label g2 u) = true) /\
    (forall u v, In u (node_ids g2) -> In v (node_ids g2) -> u <> v ->
       match LGraph.adj g2 u v, LGraph.adj g1 (f u) (f v) with
       | Some b, Some b' => edge_match labelled b' b = true
       | None, None => True
       | _, _ => False
       end).
Proof. exact isomorphic_meaning. Qed.
Print Assumptions C13_isomorphic_meaning.

Theorem C13_iso_decides_isomorphism :
  forall (labelled : bool) (defs : list N) (g1 g2 : graph), NoDup (node_ids g2) ->
  (graph_iso labelled defs g1 g2 = true <-> isomorphic labelled defs g1 g2).
Proof. exact graph_iso_spec. Qed.
Print Assumptions C13_iso_decides_isomorphism.

Theorem C13_iso_is_equivalence :
  forall (labelled : bool) (defs : list N),
  let D := fun x : item =>
             NoDup (node_ids (it_graph x)) /\
             forall u a, In (u, a) (gnodes (it_graph x)) -> length defs <= length a in
  (forall x, D x -> item_iso labelled defs x x = true) /\
  (forall x y, D x -> D y -> item_iso labelled defs x y = true -> item_iso labelled defs y x = true) /\
  (forall x y z, D x -> D y -> D z ->
     item_iso labelled defs x y = true -> item_iso labelled defs y z = true -> item_iso labelled defs x z = true).
Proof. exact (fun labelled defs => conj (item_iso_refl labelled defs) (conj (item_iso_sym labelled defs) (item_iso_trans labelled defs))). Qed.
Print Assumptions C13_iso_is_equivalence.

(** hence, with NO assumption about the isomorphism test: GraphCluster.fit on well-formed reaction-centre graphs
    gives every item exactly one class and two items share a class IFF their graphs are isomorphic on element,
    charge and bond order -- provided only that the pre-grouping attribute (if any) is isomorphism-invariant. *)
Theorem C13_partition_graphs :
  forall (labelled : bool) (defs : list N) (mode : attr_mode) (data : list item),
  let D := fun x : item =>
             NoDup (node_ids (it_graph x)) /\
             forall u a, In (u, a) (gnodes (it_graph x)) -> length defs <= length a in
  (forall x y, D x -> D y -> isomorphic labelled defs (it_graph x) (it_graph y) -> gc_key mode x = gc_key mode y) ->
  Forall D data ->
  length (gc_fit (item_iso labelled defs) mode data) = length data /\
  forall i j x y, nth_error data i = Some x -> nth_error data j = Some y ->
  exists ci cj,
    nth_error (gc_fit (item_iso labelled defs) mode data) i = Some (Some ci) /\
    nth_error (gc_fit (item_iso labelled defs) mode data) j = Some (Some cj) /\
    ci < length (fst (gc_iterative (item_iso labelled defs) mode data)) /\
    (ci = cj <-> isomorphic labelled defs (it_graph x) (it_graph y)).
Proof. exact (fun labelled defs mode data => partition_graphs labelled defs mode data). Qed.
Print Assumptions C13_partition_graphs.

(** ... and batched classification of the items in ANY arrival order, with any batch size, puts two items into the
    same class IFF their graphs are isomorphic *)
Theorem C13_batch_any_order_graphs :
  forall (labelled : bool) (defs : list N) (mode : attr_mode) (data data' : list item) (bs : option nat) (picks : list nat),
  let D := fun x : item =>
             NoDup (node_ids (it_graph x)) /\
             forall u a, In (u, a) (gnodes (it_graph x)) -> length defs <= length a in
  (forall x y, D x -> D y -> isomorphic labelled defs (it_graph x) (it_graph y) -> gc_key mode x = gc_key mode y) ->
  Permutation data data' -> Forall D data ->
  match bs with None => True | Some b => 1 <= b end ->
  forall i j i' j' x y,
    nth_error data i = Some x -> nth_error data j = Some y ->
    nth_error data' i' = Some x -> nth_error data' j' = Some y ->
    (nth_error (fst (fit (item_iso labelled defs) mode data' [] bs picks)) i' =
     nth_error (fst (fit (item_iso labelled defs) mode data' [] bs picks)) j' <->
     isomorphic labelled defs (it_graph x) (it_graph y)).
Proof. exact (fun labelled defs mode data data' bs picks => batch_any_order_graphs labelled defs mode data data' bs picks). Qed.
Print Assumptions C13_batch_any_order_graphs.

(** ** 7. the STATE carried across calls (the template list).  BatchCluster.fit from no templates -- whichever path it
    takes: one-shot GraphCluster + one sampled representative per class, or lib_check over the batches -- writes the
    class numbers of GraphCluster.fit and returns templates that (a) are coherent, (b) are processed items with the
    class they received, and (c) when the sampler's choices are in range (random.sample always is; they are an INPUT
    of the model) represent every processed item by an isomorphic template carrying its class. *)
Theorem C13_fit_templates :
  forall (iso : item -> item -> bool) (mode : attr_mode) (D : item -> Prop),
  (forall x, D x -> iso x x = true) ->
  (forall x y, D x -> D y -> iso x y = true -> iso y x = true) ->
  (forall x y z, D x -> D y -> D z -> iso x y = true -> iso y z = true -> iso x z = true) ->
  (forall x y, D x -> D y -> iso x y = true -> gc_key mode x = gc_key mode y) ->
  forall (data : list item) (bs : option nat) (picks : list nat),
  Forall D data -> match bs with None => True | Some b => 1 <= b end ->
  let cs := fst (fit iso mode data [] bs picks) in
  let ts := snd (fit iso mode data [] bs picks) in
  cs = map class_z (gc_fit iso mode data) /\
  (Forall D (map fst ts) /\
   forall t t', In t ts -> In t' ts -> (iso (fst t) (fst t') = true <-> snd t = snd t')) /\
  (forall t, In t ts -> exists i, nth_error data i = Some (fst t) /\ nth_error cs i = Some (snd t)) /\
  (Forall2 (fun k p => p < length (members data (map class_z (gc_fit iso mode data)) k))
           (first_keys [] (map class_z (gc_fit iso mode data))) picks ->
   forall i x, nth_error data i = Some x ->
   exists t, In t ts /\ iso (fst t) x = true /\ nth_error cs i = Some (snd t)).
Proof. exact fit_templates. Qed.
Print Assumptions C13_fit_templates.

(** the incremental clause end to end: a NEW item classified against the templates an earlier fit returned gets the
    class of exactly the earlier items it is isomorphic to; isomorphic to none of them, it gets a class number no
    earlier item has and is appended as the representative of that class *)
Theorem C13_fit_then_lib_check :
  forall (iso : item -> item -> bool) (mode : attr_mode) (D : item -> Prop),
  (forall x, D x -> iso x x = true) ->
  (forall x y, D x -> D y -> iso x y = true -> iso y x = true) ->
  (forall x y z, D x -> D y -> D z -> iso x y = true -> iso y z = true -> iso x z = true) ->
  (forall x y, D x -> D y -> iso x y = true -> gc_key mode x = gc_key mode y) ->
  forall (data : list item) (bs : option nat) (picks : list nat) (y : item),
  Forall D data -> match bs with None => True | Some b => 1 <= b end ->
  Forall2 (fun k p => p < length (members data (map class_z (gc_fit iso mode data)) k))
          (first_keys [] (map class_z (gc_fit iso mode data))) picks ->
  D y ->
  let cs := fst (fit iso mode data [] bs picks) in
  let ts := snd (fit iso mode data [] bs picks) in
  let c := fst (lib_check iso mode y ts) in
  (forall i x, nth_error data i = Some x -> (nth_error cs i = Some c <-> iso x y = true)) /\
  ((forall x, In x data -> iso x y = false) -> ~ In c cs /\ snd (lib_check iso mode y ts) = ts ++ [(y, c)]).
Proof. exact fit_then_lib_check. Qed.
Print Assumptions C13_fit_then_lib_check.

(** ** 8. the [clusters] list itself is a partition of the indices: no index occurs twice (within one cluster or in
    two clusters) whatever the isomorphism test answers, and with a reflexive test every index 0..n-1 occurs *)
Theorem C13_clusters_partition :
  forall (iso : item -> item -> bool) (mode : attr_mode) (data : list item),
  NoDup (concat (fst (gc_iterative iso mode data))) /\
  ((forall x, In x data -> iso x x = true) ->
   forall i, i < length data ->
   exists c, c < length (fst (gc_iterative iso mode data)) /\ In i (nth c (fst (gc_iterative iso mode data)) [])).
Proof. exact (fun iso mode data => conj (clusters_disjoint iso mode data) (clusters_cover iso mode data)). Qed.
Print Assumptions C13_clusters_partition.

(** ** 9. the defect of /repo before 6f9daf3 (known_findings.d/C13.json): with lib_check
    comparing list attributes in raw order ([lib_check_before] / [cluster_before], the code before the repair) two items
    with an isomorphism-invariant attribute (equal as multisets) that the one-shot path puts together are split by the
    batched path; the repaired code puts them together (theorem 4) *)
Theorem C13_unsorted_attribute_before_repair_refuted :
  exists (iso : item -> item -> bool) (data : list item),
    (forall x y, iso x y = true) /\
    (forall x y, In x data -> In y data -> gc_key AList x = gc_key AList y) /\
    gc_fit iso AList data = [Some 0; Some 0] /\
    fst (cluster_before iso AList data []) = [0; 1]%Z /\
    fst (cluster iso AList data []) = [0; 0]%Z.
Proof. exact unsorted_attribute_before_repair. Qed.
Print Assumptions C13_unsorted_attribute_before_repair_refuted.

(** ** 10. BatchCluster.batch_dicts (model [chunks]) for batch_size >= 1 (smaller sizes raise ValueError: contract cases):
    the batches concatenate to the input, every batch has between 1 and batch_size entries, and a first batch that is
    followed by another one has exactly batch_size entries *)
Theorem C13_batch_dicts :
  forall (b : nat) (l : list item), 1 <= b ->
  concat (chunks b l) = l /\ Forall (fun c => 1 <= length c <= b) (chunks b l) /\
  (forall c rest, chunks b l = c :: rest -> rest <> [] -> length c = b).
Proof. exact (fun b l => batch_dicts_spec b l). Qed.
Print Assumptions C13_batch_dicts.

(** ** 11. the attribute DOMAIN.  Mode [AMixed]: one list may mix the forms of the pre-grouping attribute; every
    value is normalised on its own ([norm_value]: the encoder tags a value 0 :: codes = str, 1 :: elements = list or
    tuple, 2 = attribute absent, 3 :: keys = dict / OrderedDict, 5 :: [n] = number; tags 1 and 3 are read as multisets,
    everything else by value).  All theorems above hold for every mode, so "isomorphism-invariant attribute" means:
    isomorphic items have equal NORMALISED values (premise [gc_key mode x = gc_key mode y]). *)
Theorem C13_attribute_normalisation :
  forall (r : list Z) (t : Z),
  norm_value (1%Z :: r) = 1%Z :: sortZ r /\ norm_value (3%Z :: r) = 3%Z :: sortZ r /\
  (t <> 1%Z -> t <> 3%Z -> norm_value (t :: r) = t :: r) /\ norm_value [] = [].
Proof. exact norm_value_meaning. Qed.
Print Assumptions C13_attribute_normalisation.

(** the defect of /repo before 3659dfd: GraphCluster picked the normalisation by the
    type of the FIRST value; after a str first value the whole list was compared raw (= mode [AStr] on the whole list)
    and two isomorphic items with permuted list attributes were split, while the batched path (and the repaired code,
    mode [AMixed]) joins them *)
Theorem C13_first_item_normalisation_before_repair_refuted :
  gc_key AMixed mix_b = gc_key AMixed mix_c /\
  gc_fit mix_iso AMixed [mix_a; mix_b; mix_c] = [Some 0; Some 1; Some 1] /\
  gc_fit mix_iso AStr [mix_a; mix_b; mix_c] = [Some 0; Some 1; Some 2] /\
  fst (cluster mix_iso AMixed [mix_a; mix_b; mix_c] []) = [0; 1; 1]%Z.
Proof. exact first_item_normalisation_before_repair. Qed.
Print Assumptions C13_first_item_normalisation_before_repair_refuted.

(** ** intermediate values: the sequence of isomorphism tests.  The correspondence evaluates the TRACED loops of
    model/C13_Trace.v and compares, after every call, the pairs handed to graph_isomorphism in call order. *)

(** the traced loops compute exactly what the loops of C13_Model.v compute -- for every isomorphism test, so every theorem
    above is about what [runx] evaluates *)
Theorem C13_trace_projection :
  forall (iso : item -> item -> bool) (mode : attr_mode),
  (forall rules, fst (gc_iterative_tr iso mode rules) = gc_iterative iso mode rules) /\
  (forall data, fst (gc_fit_tr iso mode data) = gc_fit iso mode data) /\
  (forall x ts, fst (lib_check_tr iso mode x ts) = lib_check iso mode x ts) /\
  (forall data ts, fst (cluster_tr iso mode data ts) = cluster iso mode data ts) /\
  (forall data ts bs picks, fst (fit_tr iso mode data ts bs picks) = fit iso mode data ts bs picks).
Proof.
  exact (fun iso mode => conj (gc_iterative_tr_fst iso mode) (conj (gc_fit_tr_fst iso mode) (conj (lib_check_tr_fst iso mode)
           (conj (fun data ts => cluster_tr_fst iso mode data ts) (fit_tr_fst iso mode))))).
Qed.
Print Assumptions C13_trace_projection.

(** ... and the two-slot entry point [step] of C13_Model.v is the instance [star; zero] of [stepx]: same library after every call *)
Theorem C13_stepx_state :
  forall (star zero : N) (mode : attr_mode) (pool : list item) (ts : list template) (o : op),
  snd (stepx [star; zero] mode pool ts (OBase o)) = snd (step star zero mode pool ts o).
Proof. exact stepx_state. Qed.
Print Assumptions C13_stepx_state.

(** lib_check tests exactly the templates with the entry's (normalised) attribute, in library order, up to and including the
    first isomorphic one -- whose class the entry gets, library unchanged -- or all of them when none is isomorphic -- then
    the entry is appended as the representative of its new class *)
Theorem C13_lib_check_trace :
  forall (iso : item -> item -> bool) (mode : attr_mode) (x : item) (ts : list template),
  let sub := filter (fun t => zlist_eqb (bc_key mode (fst t)) (bc_key mode x)) ts in
  let tested := snd (lib_check_tr iso mode x ts) in
  (forall u, In u tested -> In u ts /\ bc_key mode (fst u) = bc_key mode x) /\
  ((exists pre t post, sub = pre ++ t :: post /\ tested = pre ++ [t] /\ iso (fst t) x = true /\
                       (forall u, In u pre -> iso (fst u) x = false) /\
                       lib_check iso mode x ts = (snd t, ts)) \/
   (tested = sub /\ (forall u, In u sub -> iso (fst u) x = false) /\
    snd (lib_check iso mode x ts) = ts ++ [(x, fst (lib_check iso mode x ts))])).
Proof. exact lib_check_trace. Qed.
Print Assumptions C13_lib_check_trace.

(** iterative_cluster: every test compares an earlier list position with a later one that carries the same normalised
    attribute; the earlier position is the FIRST member of one of the returned clusters (an item is only ever compared with the
    representative of a class -- the transitivity shortcut of the code, made visible); no pair of positions is tested twice;
    hence at most n(n-1)/2 tests. *)
Theorem C13_gc_trace :
  forall (iso : item -> item -> bool) (mode : attr_mode) (data : list item),
  let tr := snd (gc_iterative_tr iso mode data) in
  NoDup tr /\
  (forall i j, In (i, j) tr ->
     i < j < length data /\
     (exists xi xj, nth_error data i = Some xi /\ nth_error data j = Some xj /\ gc_key mode xi = gc_key mode xj) /\
     (exists cl, In (i :: cl) (fst (fst (gc_iterative_tr iso mode data))))) /\
  2 * length tr <= length data * (length data - 1).
Proof. exact gc_trace_full. Qed.
Print Assumptions C13_gc_trace.

(** the constructor contract of both classes inside the model: accepted iff the (lower-cased) backend is available and
    names / defaults have the same length; ImportError exactly for the class's own optional backend (GraphCluster "mod",
    BatchCluster "rule") when it is unavailable, ValueError otherwise; without the `mod` package only "nx" is available *)
Theorem C13_ctor_contract :
  forall (gc inst : bool) (nn nd : nat) (b : backend),
  (ctor_contract gc inst nn nd b = CtorOk <-> available gc inst b = true /\ nn = nd) /\
  (ctor_contract gc inst nn nd b = CtorImportError <->
     available gc inst b = false /\ ((gc = true /\ b = BMod) \/ (gc = false /\ b = BRule))) /\
  (available gc false b = true <-> b = BNx).
Proof. exact ctor_contract_spec. Qed.
Print Assumptions C13_ctor_contract.

(** attribute selection: generic_node_match(names, defaults, eq) and generic_edge_match(edge_attribute, 1, eq) evaluated on
    the RAW attribute dictionaries are the matchers of [graph_iso] on the selection [project13] (which [runr] applies to every
    item), for any number of configured names *)
Theorem C13_raw_matchers :
  (forall (names defs : list N) (h p : rnattr13), length defs = length names ->
     node_match_raw13 names defs h p =
     attrs_match defs (map (fun k => LGraph.assoc k h) names) (map (fun k => LGraph.assoc k p) names)) /\
  (forall (c : ccfg) (g1 g2 : rgraph13) (u v u' v' : N), length (cc_defs c) = length (cc_names c) ->
     node_match true (cc_defs c) (label (project13 c g1) u) (label (project13 c g2) v) =
       match label g1 u, label g2 v with
       | Some a, Some b => node_match_raw13 (cc_names c) (cc_defs c) a b
       | _, _ => false
       end /\
     match LGraph.adj (project13 c g1) u u', LGraph.adj (project13 c g2) v v' with
     | Some a, Some b => edge_match true a b
     | _, _ => false
     end =
     match LGraph.adj g1 u u', LGraph.adj g2 v v' with
     | Some a, Some b => edge_match_raw13 (cc_edge c) a b
     | _, _ => false
     end) /\
  (forall (c : ccfg) (g : rgraph13), node_ids (project13 c g) = node_ids g).
Proof. exact (conj node_match_raw13_project (conj project13_matchers project13_ids)). Qed.
Print Assumptions C13_raw_matchers.

(** graph_morphism.graph_isomorphism(g1, g2, node_match, edge_match, use_defaults) -- its option handling in the model
    ([iso_call]: a matcher that is None is replaced by the function's own default (element / charge with "*" / 0; order with 1)
    only when use_defaults is set, otherwise that side is not compared at all): with both matchers given the caller's
    configuration decides and use_defaults is irrelevant; with none and use_defaults the function's defaults; with none and
    no defaults the topology alone; with only the node matcher and use_defaults the caller's labels and the default bond
    attribute.  [graph_iso2] with equal flags is [graph_iso]. *)
Theorem C13_graph_isomorphism_options :
  forall (c cdef : ccfg) (g1 g2 : rgraph13),
  (forall ud, iso_call c cdef true true ud g1 g2 = graph_iso true (cc_defs c) (project13 c g1) (project13 c g2)) /\
  iso_call c cdef false false true g1 g2 = graph_iso true (cc_defs cdef) (project13 cdef g1) (project13 cdef g2) /\
  iso_call c cdef false false false g1 g2 =
    graph_iso false [] (project13 {| cc_names := []; cc_defs := []; cc_edge := 0%N |} g1)
                       (project13 {| cc_names := []; cc_defs := []; cc_edge := 0%N |} g2) /\
  iso_call c cdef true false true g1 g2 =
    graph_iso true (cc_defs c) (project13 {| cc_names := cc_names c; cc_defs := cc_defs c; cc_edge := cc_edge cdef |} g1)
                               (project13 {| cc_names := cc_names c; cc_defs := cc_defs c; cc_edge := cc_edge cdef |} g2).
Proof. exact iso_call_cases. Qed.
Print Assumptions C13_graph_isomorphism_options.

(** the EXACT sequence of isomorphism tests of iterative_cluster, as a function of the clusters it returns (the test itself does
    not occur): for every returned cluster, in order, its first member i is tested against every LATER list position j -- in
    list order -- that carries the same normalised attribute and belongs to no EARLIER cluster.  [spec_new todo visited new]:
    [todo] the (position, item) entries still to come, [visited] the members of the clusters before, [new] the clusters;
    [row] one representative's tests; [after i todo] the entry of position i and what follows it. *)
Theorem C13_gc_trace_exact :
  forall (iso : item -> item -> bool) (mode : attr_mode) (data : list item),
  snd (gc_iterative_tr iso mode data) = spec_new mode (enum_from 0 data) [] (fst (fst (gc_iterative_tr iso mode data))).
Proof. exact gc_trace_exact. Qed.
Print Assumptions C13_gc_trace_exact.

Theorem C13_gc_trace_exact_meaning :
  forall (mode : attr_mode),
  (forall todo visited, spec_new mode todo visited [] = []) /\
  (forall todo visited i tl more,
     spec_new mode todo visited ((i :: tl) :: more) =
     match after i todo with
     | Some (xi, rest) => row mode i xi rest visited ++ spec_new mode rest ((i :: tl) ++ visited) more
     | None => []
     end) /\
  (forall i xi rest vis,
     row mode i xi rest vis =
     map (fun jx => (i, fst jx))
         (filter (fun jx => zlist_eqb (gc_key mode xi) (gc_key mode (snd jx)) && negb (memb (fst jx) vis)) rest)) /\
  (forall i, after i [] = None) /\
  (forall i k x r, after i ((k, x) :: r) = if Nat.eqb k i then Some (x, r) else after i r).
Proof. exact (fun mode => conj (fun _ _ => eq_refl) (conj (fun _ _ _ _ _ => eq_refl) (conj (fun _ _ _ _ => eq_refl) (conj (fun _ => eq_refl) (fun _ _ _ _ => eq_refl))))). Qed.
Print Assumptions C13_gc_trace_exact_meaning.

(** ** THE PARTITION THEOREM ON THE CALLER'S GRAPHS.  Items are handed to the model as raw attribute dictionaries
    ([ritem], [mk_item c] selects the configured names).  [raw_isomorphic c g1 g2] (written out in the first theorem): equal
    atom counts and a bijection of the atoms that preserves the configured labels after the defaults
    (generic_node_match(names, defaults, eq)) and presence + configured attribute (default 1) of every bond
    (generic_edge_match(edge_attribute, 1, eq)).  GraphCluster.fit gives every item exactly one class, and two items share a
    class IFF their raw graphs are isomorphic in that sense -- for any number of configured labels, provided node ids are
    distinct and the pre-grouping attribute (if any) is equal on isomorphic items OF THE LIST. *)
Theorem C13_raw_isomorphic_meaning :
  forall (c : ccfg) (g1 g2 : rgraph13),
  raw_isomorphic c g1 g2 <->
  length (gnodes g1) = length (gnodes g2) /\
  exists f : N -> N,
    NoDup (map f (node_ids g2)) /\ incl (map f (node_ids g2)) (node_ids g1) /\
    (forall u, In u (node_ids g2) ->
       match label g1 (f u), label g2 u with
       | Some a, Some b => node_match_raw13 (cc_names c) (cc_defs c) a b = true
       | _, _ => False
       end) /\
    (forall u v, In u (node_ids g2) -> In v (node_ids g2) -> u <> v ->
       match LGraph.adj g2 u v, LGraph.adj g1 (f u) (f v) with
       | Some b, Some b' => edge_match_raw13 (cc_edge c) b' b = true
       | None, None => True
       | _, _ => False
       end).
Proof. exact (fun c g1 g2 => iff_refl _). Qed.
Print Assumptions C13_raw_isomorphic_meaning.

Theorem C13_partition_raw :
  forall (c : ccfg) (mode : attr_mode) (data : list ritem),
  length (cc_defs c) = length (cc_names c) ->
  (forall x, In x data -> NoDup (node_ids (ri_graph x))) ->
  (forall x y, In x data -> In y data -> raw_isomorphic c (ri_graph x) (ri_graph y) ->
               gc_key mode (mk_item c x) = gc_key mode (mk_item c y)) ->
  let items := map (mk_item c) data in
  let classes := gc_fit (item_iso true (cc_defs c)) mode items in
  length classes = length data /\
  forall i j x y, nth_error data i = Some x -> nth_error data j = Some y ->
  exists ci cj, nth_error classes i = Some (Some ci) /\ nth_error classes j = Some (Some cj) /\
                (ci = cj <-> raw_isomorphic c (ri_graph x) (ri_graph y)).
Proof. exact partition_raw. Qed.
Print Assumptions C13_partition_raw.

(** the incremental clause of the property on the caller's graphs: a NEW raw item classified ([lib_check]) against the templates
    that an earlier [fit] (one-shot + sampled representatives, or batched; any batch size >= 1, any in-range sampler choices)
    returned gets the class of EXACTLY the earlier items its raw graph is isomorphic to; isomorphic to none of them, it gets a
    class number no earlier item has and is appended as the representative of that class *)
Theorem C13_incremental_raw :
  forall (c : ccfg) (mode : attr_mode) (data : list ritem) (bs : option nat) (picks : list nat) (y : ritem),
  length (cc_defs c) = length (cc_names c) ->
  (forall x, In x (y :: data) -> NoDup (node_ids (ri_graph x))) ->
  (forall x x', In x (y :: data) -> In x' (y :: data) -> raw_isomorphic c (ri_graph x) (ri_graph x') ->
                gc_key mode (mk_item c x) = gc_key mode (mk_item c x')) ->
  match bs with None => True | Some b => 1 <= b end ->
  let iso := item_iso true (cc_defs c) in
  let items := map (mk_item c) data in
  Forall2 (fun k p => p < length (members items (map class_z (gc_fit iso mode items)) k))
          (first_keys [] (map class_z (gc_fit iso mode items))) picks ->
  let cs := fst (fit iso mode items [] bs picks) in
  let ts := snd (fit iso mode items [] bs picks) in
  let cl := fst (lib_check iso mode (mk_item c y) ts) in
  (forall i x, nth_error data i = Some x ->
     (nth_error cs i = Some cl <-> raw_isomorphic c (ri_graph x) (ri_graph y))) /\
  ((forall x, In x data -> ~ raw_isomorphic c (ri_graph x) (ri_graph y)) ->
   ~ In cl cs /\ snd (lib_check iso mode (mk_item c y) ts) = ts ++ [(mk_item c y, cl)]).
Proof. exact incremental_raw. Qed.
Print Assumptions C13_incremental_raw.

(** ** the optional matcher arguments as OPTIONS of the model (model/C13_Opts.v; the correspondence runs every
    history through [runR] -> [playR] -> [stepR]).  [msrc]: a matcher argument is omitted / None ([MNone]), the object's own
    matcher handed in ([MObj]) or a matcher the caller built from another configuration [cm] ([MExplicit]).
    BatchCluster.lib_check falls back to the object's own matcher PER ARGUMENT (nodeMatch or self.nodeMatch, edgeMatch or
    self.edgeMatch): the node labels come from the caller's matcher iff nodeMatch was given, the bond attribute from the caller's
    matcher iff edgeMatch was given -- so with only nodeMatch given the object's bond attribute is still compared, with only
    edgeMatch given the object's node labels are; and the test always compares both sides. *)
Theorem C13_lib_check_fallback_per_argument :
  forall (c cm : ccfg) (ns es : msrc),
  let ce := mix_cfg c cm (fallback ns) (fallback es) in
  (cc_names ce = match ns with MExplicit => cc_names cm | _ => cc_names c end) /\
  (cc_defs ce = match ns with MExplicit => cc_defs cm | _ => cc_defs c end) /\
  (cc_edge ce = match es with MExplicit => cc_edge cm | _ => cc_edge c end).
Proof. exact lib_check_fallback_per_argument. Qed.
Print Assumptions C13_lib_check_fallback_per_argument.

Theorem C13_lib_check_options :
  forall (c cm : ccfg) (mode : attr_mode) (rpool : list ritem) (ts : list template) (i : nat) (ns es : msrc),
  stepR c cm mode rpool ts (RLibCheck i ns es) =
  let ce := mix_cfg c cm (fallback ns) (fallback es) in
  stepx (cc_defs ce) mode (map (mk_item ce) rpool) (map (reproj ce rpool) ts) (OBase (OLibCheck i)).
Proof. exact lib_check_options. Qed.
Print Assumptions C13_lib_check_options.

(** GraphCluster.iterative_cluster(rules, attributes, nodeMatch, edgeMatch) has NO fallback: a side whose matcher is None is not
    compared at all ([given], [item_iso2]); with both given it is the labelled test, with none the topology-only test *)
Theorem C13_iterative_cluster_no_fallback :
  forall (c cm : ccfg),
  (forall defs x y, item_iso2 true true defs x y = item_iso true defs x y) /\
  (forall defs x y, item_iso2 false false defs x y = item_iso false defs x y) /\
  given MNone = false /\ given MObj = true /\ given MExplicit = true /\
  cc_names (mix_cfg c cm MNone MObj) = [] /\ cc_edge (mix_cfg c cm MExplicit MNone) = 0%N.
Proof. exact gc_iter_no_fallback. Qed.
Print Assumptions C13_iterative_cluster_no_fallback.

(** the order-independence clause of the property on the caller's graphs: clustering the same raw items in ANY order gives the
    same partition -- two items share a class in one run iff they do in the other, iff their raw graphs are isomorphic on the
    configured labels and bond attribute *)
Theorem C13_order_independent_raw :
  forall (c : ccfg) (mode : attr_mode) (data data' : list ritem),
  Permutation data data' ->
  length (cc_defs c) = length (cc_names c) ->
  (forall x, In x data -> NoDup (node_ids (ri_graph x))) ->
  (forall x y, In x data -> In y data -> raw_isomorphic c (ri_graph x) (ri_graph y) ->
               gc_key mode (mk_item c x) = gc_key mode (mk_item c y)) ->
  let classes := gc_fit (item_iso true (cc_defs c)) mode (map (mk_item c) data) in
  let classes' := gc_fit (item_iso true (cc_defs c)) mode (map (mk_item c) data') in
  forall i j i' j' x y,
    nth_error data i = Some x -> nth_error data j = Some y ->
    nth_error data' i' = Some x -> nth_error data' j' = Some y ->
    exists ci cj ci' cj',
      nth_error classes i = Some (Some ci) /\ nth_error classes j = Some (Some cj) /\
      nth_error classes' i' = Some (Some ci') /\ nth_error classes' j' = Some (Some cj') /\
      (ci = cj <-> ci' = cj') /\ (ci = cj <-> raw_isomorphic c (ri_graph x) (ri_graph y)).
Proof. exact order_independent_raw. Qed.
Print Assumptions C13_order_independent_raw.

(** batched classification on the caller's graphs: BatchCluster.fit from no templates over ANY arrival order of the raw items,
    with any batch size >= 1 and any sampler choices, puts two items into one class IFF their raw graphs are isomorphic *)
Theorem C13_batch_any_order_raw :
  forall (c : ccfg) (mode : attr_mode) (data data' : list ritem) (bs : option nat) (picks : list nat),
  Permutation data data' ->
  length (cc_defs c) = length (cc_names c) ->
  (forall x, In x data -> NoDup (node_ids (ri_graph x))) ->
  (forall x y, In x data -> In y data -> raw_isomorphic c (ri_graph x) (ri_graph y) ->
               gc_key mode (mk_item c x) = gc_key mode (mk_item c y)) ->
  match bs with None => True | Some b => 1 <= b end ->
  let classes' := fst (fit (item_iso true (cc_defs c)) mode (map (mk_item c) data') [] bs picks) in
  forall i' j' x y, nth_error data' i' = Some x -> nth_error data' j' = Some y ->
    (nth_error classes' i' = nth_error classes' j' <-> raw_isomorphic c (ri_graph x) (ri_graph y)).
Proof. exact batch_any_order_raw. Qed.
Print Assumptions C13_batch_any_order_raw.
